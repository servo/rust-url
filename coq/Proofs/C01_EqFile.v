(* Proofs/C01_EqFile.v - C01 equivalence, class "file: ... without a file base": the text after "file:" with
   no, one or two (or more) leading '/' '\', [host], path with '/' and '\' as separators, dot segments and
   drive letters, ?query (special-query set), #fragment - parse_file / parse_file_host / parse_path
   (SchemeType::File) of parser.rs against the file, file slash, file host, path start and path states of the
   Standard (Proofs/C01_EqFileSpec.v).  The host functions are abstract (hp, hd on the model's side: Host::parse, Display;
   shp, shs on the Standard's: host parser, host serializer), related on the one string they are applied to (`host_agree_file` = host_agree_sp + the two sides agree on "the host is the domain
   localhost" + the Standard's serializer gives the empty string for the empty host).
   Excluded (computable on the text, `file_class_ok`; each exclusion is a known divergence):
     - a drive letter in host position (file://C:/..., F-C01-1/11),
     - what `fpath_ok` excludes (Proofs/C01_EqFilePath.v: F-C01-5/9, F-C01-1, F-C01-7),
     - the collapse of leading slashes changes the path: the model's segment list with its leading empty
       segments dropped is not the Standard's list (F-C01-2/3, F-C01-11 behind an empty host). *)
From RU Require Import Base.Prelude Base.Utf8 Model.PercentEncoding Model.HostT Model.UrlRecord Model.Parser
  Model.Setters Spec.Whatwg Proofs.ListN Proofs.C02_Parts Proofs.C02_Path Proofs.C02_PathL1 Proofs.C08_Input
  Proofs.C01_EqRun Proofs.C01_EqApi Proofs.C01_EqOpaque Proofs.C01_EqPathSpec Proofs.C01_EqRef Proofs.C01_EqPath
  Proofs.C01_EqAuthSpec Proofs.C01_EqAuthModel Proofs.C01_EqAuth Proofs.C01_EqClasses Proofs.C01_EqClasses2
  Proofs.C01_EqSpSpec Proofs.C01_EqSpPath Proofs.C01_EqSpModel Proofs.C01_EqFileSpec Proofs.C01_EqFilePath
  Proofs.C01_EqFileRel.

Lemma spath_f_snd t : forall P B P' B', snd (spath_f t P B) = snd (spath_f t P' B').
Proof.
  induction t as [|c r IH]; intros P B P' B'; [reflexivity|]. cbn [spath_f].
  destruct (is_sl c); [apply IH|]. destruct (is_qh c); [reflexivity | apply IH].
Qed.

Lemma norm_first_no_qh P B : no_qh B = true -> no_qh (norm_first P B) = true.
Proof.
  intros H. unfold norm_first. destruct (is_nil P && is_windows_drive_letter B); [|exact H].
  destruct B as [|a [|b r]]; try exact H. unfold no_qh in *. cbn [forallb] in *.
  apply andb_true_iff in H. destruct H as [Ha H]. apply andb_true_iff in H. destruct H as [_ Hr]. rewrite Ha, Hr. reflexivity.
Qed.

Lemma removelast_forallb {A} (f : A -> bool) P : forallb f P = true -> forallb f (removelast P) = true.
Proof.
  intros HP. rewrite forallb_forall in *. intros x Hx. apply HP. destruct P as [|p0 P]; [destruct Hx|].
  assert (p0 :: P <> []) as Hne by discriminate.
  rewrite (app_removelast_last p0 Hne). apply in_or_app. left. exact Hx.
Qed.

Lemma shorten_f_forallb (f : list N -> bool) P : forallb f P = true -> forallb f (shorten_f P) = true.
Proof.
  intros H. unfold shorten_f. destruct P as [|p0 [|p1 P']]; try (apply removelast_forallb; exact H).
  destruct (is_normalized_windows_drive_letter p0); [exact H | reflexivity].
Qed.

Lemma fin_f_forallb (f : list N -> bool) P B sep : f [] = true -> forallb f P = true -> f (norm_first P B) = true ->
  forallb f (fin_f P B sep) = true.
Proof.
  intros H0 HP HB. unfold fin_f. pose proof (shorten_f_forallb f P HP) as HR.
  destruct (is_double_dot_segment B); [destruct sep; [exact HR | rewrite forallb_app, HR; cbn [forallb]; rewrite H0; reflexivity]|].
  destruct (is_single_dot_segment B); [destruct sep; [exact HP | rewrite forallb_app, HP; cbn [forallb]; rewrite H0; reflexivity]|].
  rewrite forallb_app, HP. cbn [forallb]. rewrite HB. reflexivity.
Qed.

Lemma spath_f_no_qh t : forall P B, forallb no_qh P = true -> no_qh B = true ->
  forallb no_qh (fst (spath_f t P B)) = true.
Proof.
  intros P B. rewrite spath_f_is_g. revert P B.
  apply (spath_g_forallb is_sl fin_f no_qh eq_refl).
  - intros P B s HP HB. apply fin_f_forallb; [reflexivity | exact HP | apply norm_first_no_qh; exact HB].
  - intros c B _ Eq HB. unfold no_qh in *. rewrite forallb_app, HB. apply upe_cp_no_qh. exact Eq.
Qed.

Lemma spath_f_no_slash t : forall P B, forallb no_slash P = true -> no_slash B = true ->
  forallb no_slash (fst (spath_f t P B)) = true.
Proof.
  intros P B. rewrite spath_f_is_g. revert P B.
  apply (spath_g_forallb is_sl fin_f no_slash eq_refl).
  - intros P B s HP HB. apply fin_f_forallb; [reflexivity | exact HP | apply norm_first_no_slash; exact HB].
  - intros c B Esl _ HB. unfold no_slash in *. rewrite forallb_app, HB. apply upe_cp_no_slash.
    unfold is_sl in Esl. apply orb_false_iff in Esl. tauto.
Qed.

Lemma pqf_q_clean_f l : usv_list l -> opt_clean (query_set STFile) (pqf_q STFile l).
Proof.
  intros Hu. unfold pqf_q. destruct (inp_next l) as [[c r]|] eqn:En; [|exact I].
  destruct (c =? 63); [|exact I]. cbn [opt_clean]. apply (query_of_clean STFile). exact (inp_next_usv l c r Hu En).
Qed.

Lemma Bs_flat pre segs last : Bs pre segs ++ last = pre ++ flat (segs ++ [last]).
Proof. unfold flat. rewrite path_text_flat. unfold Bs, path_text. rewrite <- !app_assoc. reflexivity. Qed.

(* equality test on segment lists *)
Fixpoint segs_eqb (a b : list (list N)) : bool :=
  match a, b with
  | [], [] => true
  | x :: a', y :: b' => list_eqb x y && segs_eqb a' b'
  | _, _ => false
  end.
Lemma segs_eqb_eq a : forall b, segs_eqb a b = true -> a = b.
Proof.
  induction a as [|x a IH]; intros [|y b] H; try discriminate H; [reflexivity|].
  cbn [segs_eqb] in H. apply andb_true_iff in H. destruct H as [H1 H2].
  apply list_eqb_spec in H1. rewrite H1, (IH b H2). reflexivity.
Qed.

(* the model's path loop on the text tm (has_host = hh) is inside `fpath_ok`, and its segment list with the
   leading empty segments dropped is the list the Standard's path state builds on the text ts *)
Definition fp_ok (hh : bool) (tm ts : list N) : bool :=
  fpath_ok hh tm [] [] && segs_eqb (strip_f (fst (spath_f tm [] []))) (fst (spath_f ts [] [])).

(* the text R after "file:" *)
Definition file_class_ok (R : list N) : bool :=
  match R with
  | c1 :: R1 =>
      if is_sl c1 then
        match R1 with
        | c2 :: T =>
            if is_sl c2 then
              let h := as_part T in
              let X := as_rest T in
              negb (is_windows_drive_letter h)
              && fp_ok false X (path_text_s X)
              && (is_nil h || fp_ok true (path_text_s X) (path_text_s X))
            else fp_ok false R1 R1
        | [] => fp_ok false R1 R1
        end
      else fp_ok false R R
  | [] => fp_ok false R R
  end.

(* the one string the host parsers of the two sides are applied to *)
Definition file_host_of (R : list N) : list N :=
  match R with
  | c1 :: c2 :: T => if is_sl c1 && is_sl c2 then as_part T else []
  | _ => []
  end.

Definition is_localhost_m (h : host) : bool := match h with HDomain d => list_eqb d s_localhost | _ => false end.
Definition is_localhost_s (h : spec_host) : bool := match h with SDomain d => list_eqb d str_localhost | _ => false end.

(* the host hypothesis of the class *)
Definition host_agree_file (hp : list N -> result host) (hd : host -> list N)
           (shp : bool -> list N -> option spec_host) (shs : spec_host -> list N) (s : list N) : Prop :=
  shs SEmpty = []
  /\ host_agree_sp hp hd shp shs s
  /\ match hp s, host_parsing shp false s with
     | Ok h, Some sh => is_localhost_m h = is_localhost_s sh
     | _, _ => True
     end.

Section FileModel.
Variable dbg : bool.
Variable hp hpo : list N -> result host.
Variable hd : host -> list N.
Variable shp : bool -> list N -> option spec_host.
Variable shs : spec_host -> list N.

Notation PP hh ps s l := (parse_path dbg CUrlParser STFile hh ps s l).

(* the path loop started behind "pre /" *)
Lemma file_path_loop pre l hh : usv_list l -> fpath_ok hh (ntnl l) [] [] = true ->
  PP hh (nlen pre) (pre ++ [47]) l = POk (pre ++ flat (strip_f (fst (spath_f (ntnl l) [] []))), hh, cbb_rest l)
  /\ snd (spath_f (ntnl l) [] []) = ntnl (cbb_rest l).
Proof.
  intros Hu Hok. unfold parse_path.
  assert (pend_ok []) as Hp0 by (split; [constructor | reflexivity]).
  assert (Bs pre [] = pre ++ [47]) as EB by (unfold Bs; cbn; rewrite !app_nil_r; reflexivity).
  destruct (loop_exact_f pre dbg l [] [] [] hh Hu Hp0 eq_refl eq_refl Hok) as (segs & last & Hloop & Hfst & Hsnd).
  cbn [app rev utf8_encode flat_map encode] in Hfst, Hsnd.
  rewrite app_nil_r, EB in Hloop. rewrite Hloop. split; [|exact Hsnd].
  rewrite Bs_flat. rewrite <- Hfst. rewrite fixup_flat; [reflexivity|]. apply spath_f_no_slash; reflexivity.
Qed.

(* a leading separator in front of the path: "pre" -> "pre /" *)
Lemma file_lead_sep pre l : forall c l1 hh, inp_next l = Some (c, l1) -> is_sl c = true ->
  PP hh (nlen pre) pre l = PP hh (nlen pre) (pre ++ [47]) l1.
Proof.
  unfold parse_path. induction l as [|c0 r IH]; intros c l1 hh En Hs; [discriminate En|].
  destruct (is_tnl c0) eqn:Et.
  - rewrite inp_next_tnl in En by exact Et. rewrite (loop_tnl dbg STFile _ c0 r _ _ [] hh Et). cbn [push_pending].
    exact (IH c l1 hh En Hs).
  - rewrite inp_next_cons in En by exact Et. inversion En; subst c0 l1.
    rewrite (loop_sep dbg STFile _ c r _ _ [] hh Et) by (rewrite sep_file; exact Hs). cbn [push_pending].
    unfold finish_segment.
    assert (slice_o (pre ++ [47]) (nlen pre) (nlen (pre ++ [47]) - 1) = Some []) as ->.
    { rewrite nlen_app. replace (nlen pre + nlen [47] - 1) with (nlen pre + nlen (@nil N)) by (unfold nlen; cbn [length]; lia).
      exact (slice_mid pre [] [47]). }
    cbn [of_option pbind is_double_dot is_single_dot st_is_file andb].
    replace (nlen pre =? nlen pre + 1) with false by lia. cbn [andb pbind]. reflexivity.
Qed.

Lemma file_host_scan_spec l : forall acc, usv_list l ->
  exists rem, file_host_scan acc l = (rev acc ++ as_part (ntnl l), rem)
              /\ ntnl rem = as_rest (ntnl l) /\ usv_list rem.
Proof.
  induction l as [|c r IH]; intros acc Hu.
  - exists []. cbn. rewrite app_nil_r. repeat split. constructor.
  - pose proof Hu as Hu0. apply usv_cons in Hu. destruct Hu as [Huc Hur]. cbn [file_host_scan].
    destruct (is_tnl c) eqn:Et.
    + rewrite ntnl_cons_tnl by exact Et. apply IH. exact Hur.
    + rewrite ntnl_cons by exact Et. cbn [as_part as_rest]. rewrite path_end_aes.
      destruct (is_aes c) eqn:Es.
      * exists (c :: r). rewrite app_nil_r. split; [reflexivity|]. split; [apply ntnl_cons; exact Et | exact Hu0].
      * destruct (IH (c :: acc) Hur) as (rem & E1 & E2 & E3). exists rem.
        rewrite E1. cbn [rev]. rewrite <- app_assoc. repeat split; assumption.
Qed.

(* parse_path_start for the file scheme behind a host text *)
Lemma file_path_start rem s hh : usv_list rem -> ends_with_byte 47 s = false ->
  exists l', parse_path_start dbg CUrlParser STFile hh s rem = PP hh (nlen s) (s ++ [47]) l'
             /\ ntnl l' = path_text_s (ntnl rem) /\ usv_list l'.
Proof.
  intros Hu He. unfold parse_path_start, inp_split_first. cbn [st_is_special]. rewrite He. cbn [negb].
  destruct (ntnl rem) as [|c t] eqn:Ent.
  - rewrite (inp_next_none rem Ent). exists rem. split; [reflexivity|]. split; [rewrite Ent; reflexivity | exact Hu].
  - destruct (inp_next_some rem c t Ent) as (r' & En & Hr' & Et). rewrite En.
    pose proof (inp_next_usv rem c r' Hu En) as Hur'. cbn [path_text_s]. rewrite is_sl_model.
    destruct (is_sl c).
    + exists r'. split; [reflexivity|]. split; [exact Hr' | exact Hur'].
    + exists rem. split; [reflexivity|]. split; [exact Ent | exact Hu].
Qed.

(* from the path on: the canonical record, related to the Standard's *)
Lemma file_common ht hi sh l ts hh : usv_list l -> fp_ok hh (ntnl l) ts = true ->
  snd (spath_f ts [] []) = snd (spath_f (ntnl l) [] []) ->
  ht = shs sh -> starts_with_cp 58 ht = false -> (hi = HI_None -> ht = []) ->
  let pre := s_file_css ++ ht in
  let Ps := fst (spath_f ts [] []) in
  let rest := cbb_rest l in
  let U := auth_url s_file [] [] ht hi None (flat Ps) (pqf_q STFile rest) (pqf_f rest) in
  PP hh (nlen pre) (pre ++ [47]) l = POk (pre ++ flat Ps, hh, rest)
  /\ related dbg shs U (file_tail (set_host (fu u_file0) (Some sh)) (spath_f ts [] []))
  /\ oob (U32_MAX_P < nlen (ser U))
         (' (s, qs, fs) <~ parse_query_and_fragment None CUrlParser STFile 4 (pre ++ flat Ps) rest ;;
          POk (file_url s 7 (nlen pre) hi qs fs)) U
  /\ 4 <= nlen (ser U).
Proof.
  intros Hu Hok Hsnd Hht Hcol Hhi pre Ps rest U.
  unfold fp_ok in Hok. apply andb_true_iff in Hok. destruct Hok as [Hok Heq]. apply segs_eqb_eq in Heq.
  destruct (file_path_loop pre l hh Hu Hok) as [Hloop Hrest]. fold rest in Hloop, Hrest. rewrite Heq in Hloop. fold Ps in Hloop.
  assert (usv_list rest) as Hurest by (apply usv_cbb_rest; exact Hu).
  assert (match ntnl rest with [] => True | c :: _ => is_qh c = true end) as Hresth.
  { pose proof (cbb_rest_head l) as Hh. fold rest in Hh. destruct rest as [|d dr]; [exact I|]. destruct Hh as [Hh1 Hh2].
    rewrite ntnl_cons by exact Hh2. exact Hh1. }
  assert (ser U = (pre ++ flat Ps) ++ qf_text (pqf_q STFile rest) (pqf_f rest)) as EU.
  { unfold U, auth_url, pre. cbn [ser cred_text port_suffix is_nil andb]. rewrite !app_nil_r. reflexivity. }
  split; [exact Hloop|]. split; [|split].
  - (* related *)
    assert (file_tail (set_host (fu u_file0) (Some sh)) (spath_f ts [] [])
            = spec_auth_url str_file [] [] sh None Ps (pqf_q STFile rest) (pqf_f rest)) as ->.
    { unfold file_tail. fold Ps. rewrite Hsnd, Hrest.
      rewrite (tail_url_st STFile); [reflexivity | reflexivity | reflexivity | reflexivity | apply cbb_rest_head]. }
    apply (related_auth_f dbg shs s_file [] [] ht hi sh None Ps (pqf_q STFile rest) (pqf_f rest)). constructor.
    + reflexivity.
    + reflexivity.
    + exact Hht.
    + exact Hcol.
    + exact Hhi.
    + reflexivity.
    + intros p Hp. discriminate Hp.
    + apply flat_no_qh. apply spath_f_no_qh; reflexivity.
    + apply pqf_q_clean_f. exact Hurest.
    + repeat split.
  - (* the model *)
    eapply oob_bind.
    { apply (pqf_oob None (U32_MAX_P < nlen (ser U))); [exact Hurest | reflexivity | exact Hresth |].
      intros Hlt. rewrite EU. exact Hlt. }
    right. unfold U, auth_url, file_url, pre. cbn [cred_text port_suffix is_nil andb]. rewrite !app_nil_r.
    change (auth_s0 s_file) with s_file_css. reflexivity.
  - rewrite EU. unfold pre. rewrite !nlen_app. change (nlen s_file_css) with 7. lia.
Qed.

(* the same without a host: "file://" + path *)
Lemma file_common_nohost l ts : usv_list l -> fp_ok false (ntnl l) ts = true ->
  snd (spath_f ts [] []) = snd (spath_f (ntnl l) [] []) -> shs SEmpty = [] ->
  let Ps := fst (spath_f ts [] []) in
  let rest := cbb_rest l in
  let U := auth_url s_file [] [] [] HI_None None (flat Ps) (pqf_q STFile rest) (pqf_f rest) in
  PP false 7 (s_file_css ++ [47]) l = POk (s_file_css ++ flat Ps, false, rest)
  /\ related dbg shs U (file_tail (fu u_file0) (spath_f ts [] []))
  /\ oob (U32_MAX_P < nlen (ser U))
         (' (s, qs, fs) <~ parse_query_and_fragment None CUrlParser STFile 4 (s_file_css ++ flat Ps) rest ;;
          POk (file_url s 7 7 HI_None qs fs)) U
  /\ 4 <= nlen (ser U).
Proof.
  intros Hu Hok Hsnd Hse.
  pose proof (file_common [] HI_None SEmpty l ts false Hu Hok Hsnd (eq_sym Hse) eq_refl (fun _ => eq_refl)) as K.
  cbv zeta in K. rewrite !app_nil_r in K. change (nlen s_file_css) with 7 in K. exact K.
Qed.

(* the direct branches of parse_file (no host state) *)
Lemma file_branch_nohost l ts : usv_list l -> fp_ok false (ntnl l) ts = true ->
  snd (spath_f ts [] []) = snd (spath_f (ntnl l) [] []) -> shs SEmpty = [] ->
  exists u, oob (U32_MAX_P < nlen (ser u))
                (' (s2, _, rem) <~ PP false 7 (s_file_css ++ [47]) l ;;
                 ' (s3, qs, fs) <~ parse_query_and_fragment None CUrlParser STFile 4 s2 rem ;;
                 POk (file_url s3 7 7 HI_None qs fs)) u
            /\ related dbg shs u (file_tail (fu u_file0) (spath_f ts [] [])) /\ 4 <= nlen (ser u).
Proof.
  intros Hu Hok Hsnd Hse. destruct (file_common_nohost l ts Hu Hok Hsnd Hse) as (E & R & O & L). cbv zeta in *.
  eexists. split; [|split; [exact R | exact L]]. rewrite E. cbn [pbind]. exact O.
Qed.

(* the branch of parse_file behind parse_file_host when that returns no host *)
Lemma file_branch_hoststate rem ts : usv_list rem -> fp_ok false (ntnl rem) ts = true ->
  snd (spath_f ts [] []) = snd (spath_f (ntnl rem) [] []) -> shs SEmpty = [] ->
  exists u, oob (U32_MAX_P < nlen (ser u))
                (host_end <~ to_u32 (nlen s_file_css) ;;
                 ' (ser2, has_host, remaining2) <~ PP (negb (hi_eqb HI_None HI_None)) (nlen s_file_css) (s_file_css ++ [47]) rem ;;
                 (let '(ser3, host_end3, hi3) :=
                    if negb has_host then (nfirstn 7 ser2 ++ nskipn host_end ser2, 7, HI_None) else (ser2, host_end, HI_None) in
                  ' (ser4, qs, fs) <~ parse_query_and_fragment None CUrlParser STFile 4 ser3 remaining2 ;;
                  POk (file_url ser4 7 host_end3 hi3 qs fs))) u
            /\ related dbg shs u (file_tail (fu u_file0) (spath_f ts [] [])) /\ 4 <= nlen (ser u).
Proof.
  intros Hu Hok Hsnd Hse. destruct (file_common_nohost rem ts Hu Hok Hsnd Hse) as (E & R & O & L). cbv zeta in *.
  eexists. split; [|split; [exact R | exact L]].
  change (to_u32 (nlen s_file_css)) with (@POk N 7). cbn [pbind hi_eqb negb]. change (nlen s_file_css) with 7.
  rewrite E. cbn [pbind negb]. rewrite nfirstn_nskipn. exact O.
Qed.

Notation PF l := (parse_file dbg hp hd None CUrlParser STFile None l).

Lemma spath_f_snd_text X : snd (spath_f (path_text_s X) [] []) = snd (spath_f X [] []).
Proof.
  destruct X as [|c r]; [reflexivity|]. cbn [path_text_s]. destruct (is_sl c) eqn:E; [|reflexivity].
  cbn [spath_f]. rewrite E. apply spath_f_snd.
Qed.

(* the text l after "file:" *)
Theorem model_file l : usv_list l -> file_class_ok (ntnl l) = true ->
  host_agree_file hp hd shp shs (file_host_of (ntnl l)) ->
  match sfile shp u_file0 (ntnl l) with
  | None => mfail (PF l)
  | Some su => exists u, oob (U32_MAX_P < nlen (ser u)) (PF l) u /\ related dbg shs u su /\ 4 <= nlen (ser u)
  end.
Proof.
  intros Hu Hc (Hse & HA & HL). unfold parse_file, inp_split_first.
  destruct (ntnl l) as [|c1 R1] eqn:ER.
  - (* nothing after "file:" *)
    rewrite (inp_next_none l ER). cbv iota beta. cbn [sfile]. cbn [file_class_ok] in Hc.
    rewrite <- ER in Hc. pose proof (file_branch_nohost l (ntnl l) Hu Hc eq_refl Hse) as K. rewrite ER in K. exact K.
  - destruct (inp_next_some l c1 R1 ER) as (l1 & En1 & Hl1 & Et1). rewrite En1. cbv iota beta.
    pose proof (inp_next_usv l c1 l1 Hu En1) as Hu1. rewrite is_sl_model.
    cbn [sfile file_class_ok file_host_of] in *.
    destruct (is_sl c1) eqn:Esl1.
    2:{ (* no leading slash *)
        rewrite <- ER in Hc. pose proof (file_branch_nohost l (ntnl l) Hu Hc eq_refl Hse) as K. rewrite ER in K. exact K. }
    destruct R1 as [|c2 T] eqn:ER1.
    + (* one slash, then nothing *)
      rewrite (inp_next_none l1 Hl1). cbv iota beta.
      assert ((if negb (starts_with_wdl_segment l1) then (s_file_css, 7, HI_None) else (s_file_css, 7, HI_None))
              = (s_file_css, 7, HI_None)) as -> by (destruct (negb (starts_with_wdl_segment l1)); reflexivity).
      change 7 with (nlen s_file_css) at 1. rewrite (file_lead_sep s_file_css l c1 l1 false En1 Esl1). change (nlen s_file_css) with 7.
      rewrite <- Hl1 in Hc. pose proof (file_branch_nohost l1 (ntnl l1) Hu1 Hc eq_refl Hse) as K. rewrite Hl1 in K. exact K.
    + destruct (inp_next_some l1 c2 T Hl1) as (l2 & En2 & Hl2 & Et2). rewrite En2. cbv iota beta.
      pose proof (inp_next_usv l1 c2 l2 Hu1 En2) as Hu2. change (is_slash_or_bslash c2) with (is_sl c2).
      destruct (is_sl c2) eqn:Esl2.
      2:{ (* one slash, then the path *)
          assert ((if negb (starts_with_wdl_segment l1) then (s_file_css, 7, HI_None) else (s_file_css, 7, HI_None))
                  = (s_file_css, 7, HI_None)) as -> by (destruct (negb (starts_with_wdl_segment l1)); reflexivity).
          change 7 with (nlen s_file_css) at 1. rewrite (file_lead_sep s_file_css l c1 l1 false En1 Esl1). change (nlen s_file_css) with 7.
          rewrite <- Hl1 in Hc. pose proof (file_branch_nohost l1 (ntnl l1) Hu1 Hc eq_refl Hse) as K. rewrite Hl1 in K. exact K. }
      (* two slashes: the file host state *)
      cbn [andb] in HA, HL.
      apply andb_true_iff in Hc. destruct Hc as [Hc Hc3]. apply andb_true_iff in Hc. destruct Hc as [Hw Hc2].
      apply negb_true_iff in Hw.
      destruct (file_host_scan_spec l2 [] Hu2) as (rem & Escan & Hrem & Hurem). cbn [rev app] in Escan. rewrite Hl2 in Escan, Hrem.
      unfold parse_file_host, file_host. rewrite Escan. rewrite is_wdl_agree, Hw.
      unfold sfile_host_g. cbv zeta. cbn [app]. rewrite Hw.
      set (h := as_part T) in *. set (X := as_rest T) in *.
      rewrite <- Hrem in Hc2 at 1.
      assert (snd (spath_f (path_text_s X) [] []) = snd (spath_f (ntnl rem) [] [])) as Hsnd2
        by (rewrite Hrem; apply spath_f_snd_text).
      destruct h as [|h0 hr].
      * (* empty host *)
        cbn [is_nil pbind]. exact (file_branch_hoststate rem (path_text_s X) Hurem Hc2 Hsnd2 Hse).
      * cbn [is_nil orb] in Hc3. cbn [is_nil]. cbv iota beta.
        unfold host_agree_sp in HA. cbv beta iota in HA.
        set (h := h0 :: hr) in *.
        destruct (hp h) as [host|e] eqn:Ehp; destruct (host_parsing shp false h) as [sh|] eqn:Eshp; try contradiction.
        2:{ cbn [of_result pbind]. exists e. reflexivity. }
        destruct HA as (Htxt & Hcol & Hne & Hne2 & Hsl).
        cbn [of_result pbind].
        assert (match host with
                | HDomain d => if list_eqb d s_localhost then POk (s_file_css, false, HI_None, rem)
                               else POk (s_file_css ++ hd host, true, hi_of_host host, rem)
                | _ => POk (s_file_css ++ hd host, true, hi_of_host host, rem)
                end
                = if is_localhost_m host then POk (s_file_css, false, HI_None, rem)
                  else POk (s_file_css ++ hd host, true, hi_of_host host, rem)) as ->.
        { unfold is_localhost_m. destruct host as [d| |]; reflexivity. }
        rewrite HL. unfold lh. fold (is_localhost_s sh).
        assert (match sh with SDomain d => if list_eqb d str_localhost then SEmpty else sh | _ => sh end
                = if is_localhost_s sh then SEmpty else sh) as -> by (destruct sh; reflexivity).
        destruct (is_localhost_s sh) eqn:Elh.
        -- (* localhost: no host *)
           cbn [pbind]. exact (file_branch_hoststate rem (path_text_s X) Hurem Hc2 Hsnd2 Hse).
        -- (* a host *)
           cbn [pbind].
           assert (ends_with_byte 47 (s_file_css ++ hd host) = false) as Hends.
           { unfold ends_with_byte in *. rewrite rev_app_distr.
             destruct (rev (hd host)) as [|x y] eqn:Er; [exfalso; apply Hne2; rewrite <- (rev_involutive (hd host)), Er; reflexivity | exact Hsl]. }
           assert (hi_eqb (hi_of_host host) HI_None = false) as Ehi.
           { destruct (hi_of_host host) eqn:E; try reflexivity. exfalso. apply Hne. apply hi_none_iff. exact E. }
           rewrite Ehi. cbn [negb].
           destruct (file_path_start rem (s_file_css ++ hd host) true Hurem Hends) as (l' & Eps & Hl' & Hul').
           rewrite Hrem in Hl'.
           assert (snd (spath_f (path_text_s X) [] []) = snd (spath_f (ntnl l') [] [])) as Hsnd3 by (rewrite Hl'; reflexivity).
           assert (hi_of_host host = HI_None -> hd host = []) as Hhi.
           { intros E. exfalso. apply Hne. apply hi_none_iff. exact E. }
           rewrite <- Hl' in Hc3 at 1.
           destruct (file_common (hd host) (hi_of_host host) sh l' (path_text_s X) true Hul' Hc3 Hsnd3 Htxt Hcol Hhi)
             as (E & R & O & L). cbv zeta in *.
           eexists. split; [|split; [exact R | exact L]].
           eapply oob_bind.
           { apply oob_u32. intros Hlt. unfold auth_url. cbn [ser cred_text port_suffix is_nil andb]. rewrite !app_nil_r.
             change (auth_s0 s_file) with s_file_css. rewrite !nlen_app in *. lia. }
           rewrite Eps, E. cbn [pbind negb]. exact O.
Qed.

End FileModel.

Definition in_class_file (input : list N) : bool :=
  match spec_scheme (spec_clean input) with
  | Some (sch, R) => list_eqb sch str_file && file_class_ok R
  | None => false
  end.

(* the one string the host parsers of the two sides are applied to *)
Definition class_host_text_f (input : list N) : list N :=
  match spec_scheme (spec_clean input) with
  | Some (_, R) => file_host_of R
  | None => []
  end.

(* a base, if there is one, has the same scheme on the two sides *)
Definition base_sch_rel (base : option url) (sbase : option spec_url) : Prop :=
  match base, sbase with
  | None, None => True
  | Some b, Some sb => b_scheme b = su_scheme sb
  | _, _ => False
  end.

(* an input "file:" + R: the model's scheme scan leaves a scalar-value text that cleans to R, and hands it to
   parse_file together with the base, if that is a file URL *)
Lemma parse_url_file_scheme dbg hp hpo hd base input R : usv_list input ->
  spec_scheme (spec_clean input) = Some (str_file, R) ->
  exists rem, usv_list rem /\ ntnl rem = R
    /\ parse_url dbg hp hpo hd None base input
       = parse_file dbg hp hd None CUrlParser STFile
           (match base with Some b => if list_eqb (b_scheme b) s_file then Some b else None | None => None end) rem.
Proof.
  intros Hu Es. destruct (spec_scheme_input input _ _ Hu Es) as (rem & Hps & Hrem & Hur).
  exists rem. split; [exact Hur | split; [exact Hrem|]].
  unfold parse_url. rewrite Hps. unfold parse_with_scheme. change (to_u32 (nlen str_file)) with (@POk N 4). reflexivity.
Qed.

(* ... with a base that is a related pair of file URLs *)
Lemma parse_url_file_scheme_base dbg shs hp hpo hd b sb input R : usv_list input ->
  spec_scheme (spec_clean input) = Some (str_file, R) -> related dbg shs b sb -> su_scheme sb = str_file ->
  exists rem, usv_list rem /\ ntnl rem = R
    /\ parse_url dbg hp hpo hd None (Some b) input = parse_file dbg hp hd None CUrlParser STFile (Some b) rem.
Proof.
  intros Hu Es Rl Hf. destruct (parse_url_file_scheme dbg hp hpo hd (Some b) input R Hu Es) as (rem & Hur & Hrem & E).
  exists rem. rewrite E, (rel_sch _ _ _ _ Rl), Hf. repeat split; assumption.
Qed.

Section Class.
Variable dbg : bool.
Variable hp hpo : list N -> result host.
Variable hd : host -> list N.
Variable shp : bool -> list N -> option spec_host.
Variable shs : spec_host -> list N.

(* "file:..." with no base or against a base whose scheme is not file *)
Theorem class_file base sbase input : usv_list input -> in_class_file input = true ->
  base_sch_rel base sbase -> no_file_base sbase = true ->
  host_agree_file hp hd shp shs (class_host_text_f input) ->
  agree_rel_strict dbg shs (parse_url dbg hp hpo hd None base input) (spec_basic_url_parse shp input sbase).
Proof.
  intros Hu Hc Hb Hnf HA. unfold in_class_file, class_host_text_f in *.
  destruct (spec_scheme (spec_clean input)) as [[sch R]|] eqn:Es; [|discriminate].
  apply andb_true_iff in Hc. destruct Hc as [Hsch Hok]. apply list_eqb_spec in Hsch. subst sch.
  pose proof (spec_file_any shp sbase input R Es Hnf) as HS.
  destruct (parse_url_file_scheme dbg hp hpo hd base input R Hu Es) as (rem & Hur & Hrem & ->).
  rewrite <- Hrem in Hok, HA, HS.
  pose proof (model_file dbg hp hpo hd shp shs rem Hur Hok HA) as HM.
  assert (match base with Some b => if list_eqb (b_scheme b) s_file then Some b else None | None => None end = None) as ->.
  { destruct base as [b|]; [|reflexivity]. destruct sbase as [sb|]; [|contradiction Hb]. cbn [base_sch_rel] in Hb.
    rewrite Hb. unfold no_file_base in Hnf. apply negb_true_iff in Hnf. change s_file with str_file. rewrite Hnf. reflexivity. }
  destruct (sfile shp u_file0 (ntnl rem)) as [su|].
  - rewrite HS. cbn [agree_rel_strict]. destruct HM as (u & HO & Rl & Hle).
    pose proof (related_href dbg shs u su Rl) as Eh. rewrite <- Eh.
    destruct HO as [[E B]|E]; [left; split; assumption | right; exists u; split; assumption].
  - destruct HS as [uf ->]. cbn [agree_rel_strict]. exact HM.
Qed.

End Class.

(* the list condition of the class, made explicit *)
(* the collapse of the leading slashes leaves a segment list alone exactly when the list does not start with an
   empty segment followed by more *)
Definition strip_stable (P : list (list N)) : bool :=
  match P with [] :: _ :: _ => false | [] => false | _ => true end.

Lemma strip_f_len P : P <> [] -> (length (strip_f P) <= length P)%nat.
Proof.
  induction P as [|s r IH]; intros H; [contradiction|]. cbn [strip_f]. destruct (is_nil s); [|lia].
  destruct r as [|q r']; [cbn; lia|]. specialize (IH ltac:(discriminate)). cbn [length] in *. lia.
Qed.

Lemma strip_f_stable P : (strip_f P = P) <-> strip_stable P = true.
Proof.
  destruct P as [|s r]; [split; [discriminate | discriminate]|].
  destruct s as [|x s']; [|split; reflexivity].
  destruct r as [|q r']; [split; reflexivity|].
  cbn [strip_stable]. split; [|discriminate]. intros H. exfalso. change (strip_f (q :: r') = [] :: q :: r') in H.
  pose proof (strip_f_len (q :: r') ltac:(discriminate)) as L. rewrite H in L. cbn [length] in L. lia.
Qed.

Lemma segs_eqb_refl a : segs_eqb a a = true.
Proof. induction a as [|x a IH]; [reflexivity|]. cbn [segs_eqb]. rewrite IH, andb_true_r. apply list_eqb_spec. reflexivity. Qed.

Lemma segs_eqb_iff a b : segs_eqb a b = true <-> a = b.
Proof. split; [apply segs_eqb_eq | intros ->; apply segs_eqb_refl]. Qed.

(* the class condition when the model and the Standard enter the path loop at the same place *)
Theorem fp_ok_same hh t : fp_ok hh t t = fpath_ok hh t [] [] && strip_stable (fst (spath_f t [] [])).
Proof.
  unfold fp_ok. f_equal. set (P := fst (spath_f t [] [])).
  destruct (strip_stable P) eqn:E.
  - apply segs_eqb_iff. apply strip_f_stable. exact E.
  - destruct (segs_eqb (strip_f P) P) eqn:E2; [|reflexivity]. apply segs_eqb_iff in E2. apply strip_f_stable in E2.
    rewrite E2 in E. discriminate E.
Qed.
