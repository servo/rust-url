(* Proofs/C06_SpliceScheme.v - WHOLE-URL parser agreement, part 9: set_scheme.
   Changing the scheme changes how the rest is parsed, so it is a splice only within one scheme class - which is all
   the setter allows (non-special -> non-special, special non-file -> special non-file on canonical records).  For a
   raw argument made of scheme characters only (any case, first a letter; no ':' and no TAB/LF/CR) and a call that
   keeps the port (the coupling "a port equal to the new default is dropped" changes the text behind the scheme:
   excluded by port u' = port u), Parser::parse_url on  argument ++ old text from the ':' on  returns exactly the
   setter's record: the scheme state lower-cases the argument on both sides. *)
From RU Require Import Base.Prelude Base.Utf8 Base.Utf8Facts Model.AsciiSet Gen.Tables
  Model.PercentEncoding Model.HostT Model.UrlRecord Model.Parser Model.Setters Model.WF
  Proofs.ListN Proofs.C03_WF Proofs.C06_List Proofs.C06_WFI Proofs.C06_Tail Proofs.C06_Steps Proofs.C06_Suffix
  Proofs.C06_Front Proofs.C06_Port Proofs.C06_FragQuery Proofs.C06_Scheme Proofs.C06_Main
  Proofs.C14_Set Proofs.C14_Enc Proofs.C14_Views Proofs.C02_Enc Proofs.C02_Parts
  Proofs.C02_Opaque Proofs.C02_Path Proofs.C02_PathL1 Proofs.C02_Reach Proofs.C16_RT Proofs.C02_AuthParts
  Proofs.C02_Auth Proofs.C02_AuthWf Proofs.C02_PathSp Proofs.C02_AuthSp Proofs.C02_AuthMain Proofs.C02_SetQF
  Proofs.C02_Canon Proofs.C02_SetPort Proofs.C02_SetScheme Proofs.C06_Agree Proofs.C06_AgreeUrl Proofs.C06_Splice Proofs.C06_SpliceAuth
  Proofs.C06_SpliceCred Proofs.C06_SplicePath Proofs.C06_SpliceNone Proofs.C06_All.
Open Scope N_scope.
Open Scope list_scope.

(* the argument class: a letter, then letters / digits / '+' '-' '.' in any case *)
Definition scheme_arg (x : list N) : bool :=
  match x with c :: _ => is_alpha c | [] => false end && forallb scheme_char x.

(* the old serialization with the raw argument in the scheme position *)
Definition splice_scheme (u : url) (x : list N) : list N := x ++ nskipn (scheme_end u) (ser u).

Definition lower_text (x : list N) : list N := map to_lower x.

(* the scheme state on an argument of the class *)
Lemma psl_arg ctx x : forallb scheme_char x = true -> forall acc T,
  parse_scheme_loop ctx acc (x ++ T) = parse_scheme_loop ctx (rev (lower_text x) ++ acc) T.
Proof.
  induction x as [|c r IH]; intros H acc T; [reflexivity|].
  cbn [forallb] in H. apply andb_true_iff in H. destruct H as [Hc Hr].
  cbn [app parse_scheme_loop lower_text map rev]. fold (lower_text r).
  assert (is_tnl c = false) as Ht by (unfold scheme_char, is_alnum, is_alpha, is_upper, is_lower, is_digit, is_tnl in *; lia).
  rewrite Ht. unfold to_lower.
  destruct (is_lower c || is_digit c || (c =? 43) || (c =? 45) || (c =? 46)) eqn:E1.
  - assert (is_upper c = false) as Hu by (unfold is_upper, is_lower, is_digit in *; lia). rewrite Hu.
    rewrite IH by exact Hr. rewrite <- app_assoc. reflexivity.
  - assert (is_upper c = true) as Hu by (unfold scheme_char, is_alnum, is_alpha, is_upper, is_lower, is_digit in *; lia).
    rewrite Hu. rewrite IH by exact Hr. rewrite <- app_assoc. reflexivity.
Qed.

Lemma scheme_arg_setter x : scheme_arg x = true -> parse_scheme CSetter (input_new_no_trim x) = Some (lower_text x, []).
Proof.
  intros H. unfold scheme_arg in H. apply andb_true_iff in H. destruct H as [Hh Hc].
  unfold parse_scheme, input_new_no_trim. destruct x as [|c r]; [discriminate|].
  assert (is_tnl c = false) as Ht by (unfold is_alpha, is_upper, is_lower, is_tnl in *; lia).
  unfold inp_starts_with_pred, inp_next. cbn [drop_while]. rewrite Ht, Hh.
  replace (parse_scheme_loop CSetter [] (c :: r)) with (parse_scheme_loop CSetter [] ((c :: r) ++ [])) by (rewrite app_nil_r; reflexivity).
  rewrite (psl_arg CSetter (c :: r) Hc [] []). cbn [parse_scheme_loop ctx_eqb].
  rewrite app_nil_r, rev_involutive. reflexivity.
Qed.

Lemma scheme_arg_parser x T : scheme_arg x = true ->
  parse_scheme CUrlParser (x ++ 58 :: T) = Some (lower_text x, T).
Proof.
  intros H. unfold scheme_arg in H. apply andb_true_iff in H. destruct H as [Hh Hc].
  unfold parse_scheme. destruct x as [|c r]; [discriminate|].
  assert (is_tnl c = false) as Ht by (unfold is_alpha, is_upper, is_lower, is_tnl in *; lia).
  unfold inp_starts_with_pred, inp_next. cbn [app drop_while]. rewrite Ht, Hh.
  change (c :: r ++ 58 :: T) with ((c :: r) ++ 58 :: T). rewrite (psl_arg CUrlParser (c :: r) Hc [] (58 :: T)).
  cbn [parse_scheme_loop]. rewrite app_nil_r, rev_involutive. reflexivity.
Qed.

Lemma lower_text_chars l : forallb scheme_char l = true -> forallb scheme_char (lower_text l) = true.
Proof.
  induction l as [|d t IH]; intros H; [reflexivity|].
  cbn [forallb lower_text map] in *. apply andb_true_iff in H. destruct H as [H1 H2]. fold (lower_text t). rewrite (IH H2), andb_true_r.
  unfold to_lower, scheme_char, is_alnum, is_alpha, is_upper, is_lower, is_digit in *. destruct ((65 <=? d) && (d <=? 90)) eqn:E; lia.
Qed.

Lemma lower_text_arg x : scheme_arg x = true -> scheme_arg (lower_text x) = true.
Proof.
  intros H. unfold scheme_arg in *. apply andb_true_iff in H. destruct H as [Hh Hc].
  rewrite (lower_text_chars x Hc), andb_true_r.
  destruct x as [|c r]; [discriminate|]. cbn [lower_text map].
  unfold to_lower, is_alpha, is_upper, is_lower in *. destruct ((65 <=? c) && (c <=? 90)) eqn:E; lia.
Qed.

Lemma lower_text_idem x : lower_text (lower_text x) = lower_text x.
Proof.
  unfold lower_text. rewrite map_map. apply map_ext. intros c. unfold to_lower, is_upper.
  destruct ((65 <=? c) && (c <=? 90)) eqn:E; [|rewrite E; reflexivity].
  replace ((65 <=? c + 32) && (c + 32 <=? 90)) with false by lia. reflexivity.
Qed.

(* trimming leaves a text that starts with a letter and contains a ':' alone at the front *)
Lemma drop_while_app_stop (g : N -> bool) l1 c l2 : g c = false -> drop_while g (l1 ++ c :: l2) = drop_while g l1 ++ c :: l2.
Proof.
  intros Hc. induction l1 as [|d r IH]; cbn [app drop_while]; [rewrite Hc; reflexivity|].
  destruct (g d); [exact IH | reflexivity].
Qed.

Lemma trim_front_kept x T : scheme_arg x = true ->
  input_new_trim_c0 (x ++ 58 :: T) = x ++ 58 :: rev (drop_while is_c0_or_space (rev T)).
Proof.
  intros H. unfold scheme_arg in H. apply andb_true_iff in H. destruct H as [Hh _].
  destruct x as [|c r]; [discriminate|].
  assert (is_c0_or_space c = false) as Hc by (unfold is_alpha, is_upper, is_lower, is_c0_or_space in *; lia).
  unfold input_new_trim_c0, trim_matches. cbn [app drop_while]. rewrite Hc.
  change (c :: r ++ 58 :: T) with ((c :: r) ++ 58 :: T). rewrite rev_app_distr. cbn [rev]. rewrite <- app_assoc. cbn [app].
  rewrite (drop_while_app_stop is_c0_or_space (rev T) 58 (rev r ++ [c])) by reflexivity.
  rewrite rev_app_distr. cbn [rev]. rewrite rev_app_distr. rewrite !rev_involutive. cbn [rev app]. rewrite <- !app_assoc. reflexivity.
Qed.

Section SchemeSplice.
Variable dbg : bool.
Variable hp hpo : list N -> result host.
Variable hd : host -> list N.
Hypothesis HRT : HostRT hp hpo hd.

Notation Canon := (Canon hp hpo hd).

(* parse_url reads its input through the scheme state only *)
Lemma parse_url_scheme_arg x T : scheme_arg x = true ->
  parse_url dbg hp hpo hd None None (x ++ 58 :: T) = parse_url dbg hp hpo hd None None (lower_text x ++ 58 :: T).
Proof.
  intros H. unfold parse_url. rewrite (trim_front_kept x T H), (trim_front_kept (lower_text x) T (lower_text_arg x H)).
  rewrite (scheme_arg_parser x _ H), (scheme_arg_parser (lower_text x) _ (lower_text_arg x H)). rewrite lower_text_idem. reflexivity.
Qed.

(* the scheme a successful set_scheme stores for an argument of the class *)
Lemma set_scheme_new u x u' : wf_b u = true -> C06_Suffix.host_text_ok u -> scheme_arg x = true ->
  set_scheme dbg u x = Some (u', SOk) -> scheme u' = Some (lower_text x).
Proof.
  intros W HT Hx E. destruct (set_scheme_ok dbg u x W HT) as (u2 & st2 & E2 & _ & H).
  rewrite E in E2. inversion E2; subst u2 st2. destruct (H eq_refl) as (new & rem & Ep & _ & _ & Hs & _).
  pose proof (scheme_arg_setter x Hx) as Ea. unfold input_new_no_trim in Ea. rewrite Ea in Ep. inversion Ep; subst. exact Hs.
Qed.

Lemma set_scheme_ser u x u' : Canon u -> scheme_arg x = true -> set_scheme dbg u x = Some (u', SOk) ->
  nlen (ser u') <= U32_MAX_P -> port u' = port u ->
  exists T, nskipn (scheme_end u) (ser u) = 58 :: T /\ ser u' = lower_text x ++ 58 :: T.
Proof.
  intros C Hx E Hb Hp. destruct (Canon_wfh dbg hp hpo hd HRT u C) as [W HT].
  pose proof (set_scheme_new u x u' W HT Hx E) as Hs.
  destruct C as [sch P q f K | sch segs last q f K | sch ui h pt p q f K | sch ui h pt p q f K Kp].
  - destruct (set_scheme_opaque dbg sch P q f x u' SOk K E Hb) as (ns & _ & ->).
    rewrite opaque_url_sf, sf_scheme in Hs. inversion Hs; subst ns.
    exists (P ++ qf_text q f). cbn [ser scheme_end opaque_url]. unfold opaque_ser, opaque_pre. split.
    + rewrite <- !app_assoc. rewrite nskipn_app_len. reflexivity.
    + rewrite <- !app_assoc. reflexivity.
  - destruct (set_scheme_noauth dbg sch segs last q f x u' SOk K E Hb) as (ns & _ & ->).
    rewrite noauth_url_sf, sf_scheme in Hs. inversion Hs; subst ns.
    exists (marker_of (C02_Path.path_text segs last) ++ C02_Path.path_text segs last ++ qf_text q f).
    cbn [ser scheme_end noauth_url]. unfold noauth_ser, noauth_pre. split.
    + rewrite <- !app_assoc. rewrite nskipn_app_len. reflexivity.
    + rewrite <- !app_assoc. reflexivity.
  - destruct (set_scheme_auth dbg hp hpo hd STNotSpecial sch ui h pt p q f x u' SOk K eq_refl E Hb) as (ns & pt' & _ & ->).
    rewrite (auth_scheme hd) in Hs. inversion Hs; subst ns. cbn [port C02_Auth.auth_url] in Hp. subst pt'.
    exists (47 :: 47 :: ui_text ui ++ hd h ++ port_text pt ++ pth_text p ++ qf_text q f).
    cbn [ser scheme_end C02_Auth.auth_url]. rewrite !(auth_ser_shape hd). split; [apply nskipn_app_len | reflexivity].
  - destruct (set_scheme_auth dbg hp hpo hd STSpecialNotFile sch ui h pt p q f x u' SOk K eq_refl E Hb) as (ns & pt' & _ & ->).
    rewrite (auth_scheme hd) in Hs. inversion Hs; subst ns. cbn [port C02_Auth.auth_url] in Hp. subst pt'.
    exists (47 :: 47 :: ui_text ui ++ hd h ++ port_text pt ++ pth_text p ++ qf_text q f).
    cbn [ser scheme_end C02_Auth.auth_url]. rewrite !(auth_ser_shape hd). split; [apply nskipn_app_len | reflexivity].
Qed.

Theorem splice_agreement_set_scheme u x u' : Canon u -> scheme_arg x = true ->
  set_scheme dbg u x = Some (u', SOk) -> nlen (ser u') <= U32_MAX_P -> port u' = port u ->
  Canon u' /\ scheme u' = Some (lower_text x)
  /\ parse_url dbg hp hpo hd None None (splice_scheme u x) = POk u'.
Proof.
  intros C Hx E Hb Hp. pose proof (set_scheme_Canon dbg hp hpo hd u x u' SOk C E Hb) as C'.
  destruct (Canon_wfh dbg hp hpo hd HRT u C) as [W HT].
  split; [exact C'|]. split; [exact (set_scheme_new u x u' W HT Hx E)|].
  destruct (set_scheme_ser u x u' C Hx E Hb Hp) as (T & ER & ES).
  unfold splice_scheme. rewrite ER. rewrite (parse_url_scheme_arg x T Hx). rewrite <- ES.
  exact (Canon_reparse dbg hp hpo hd HRT u' C').
Qed.
End SchemeSplice.
