(* Proofs/C02_SetCred.v - L2 for set_password and set_username: on a canonical record with authority the setter
   replaces the userinfo text and shifts the offsets behind it; the result is canonical again.
   The frame: ser = A ++ Un ++ Ur ++ X with A = scheme "://", Un the user name, Ur the rest of the userinfo
   ("" | "@" | ":" pw "@"), X everything from the host on; host_end / path_start / query_start / fragment_start
   are stored relative to the start of X. *)
From RU Require Import Base.Prelude Base.Utf8 Base.Utf8Facts Model.AsciiSet Gen.Tables
  Model.PercentEncoding Model.HostT Model.UrlRecord Model.Parser Model.Setters Model.WF
  Proofs.ListN Proofs.C14_Set Proofs.C14_Enc Proofs.C14_Views Proofs.C02_Enc Proofs.C02_Parts
  Proofs.C02_Opaque Proofs.C02_Path Proofs.C02_PathL1 Proofs.C02_Reach Proofs.C16_RT Proofs.C02_AuthParts
  Proofs.C02_Auth Proofs.C02_AuthWf Proofs.C02_PathSp Proofs.C02_AuthSp Proofs.C02_AuthMain Proofs.C02_SetQF
  Proofs.C02_Canon Proofs.C02_SetPort.
Open Scope N_scope.
Open Scope list_scope.

Ltac lens := repeat (rewrite ?nlen_app, ?nlen_cons); change (nlen (@nil N)) with 0 in *; lia.

(* the five-way case split of set_username, as a function (same source text as in Model/Setters.v) *)
Definition un_pick (new_empty : bool) (after_username s : list N) (removed0 new_ue : N) : list N * N * N :=
  match new_empty, after_username with
  | true, 64 :: rest => (s ++ rest, removed0 + 1, new_ue)
  | false, 64 :: _ => (s ++ after_username, removed0, new_ue)
  | _, 58 :: _ => (s ++ after_username, removed0, new_ue)
  | true, _ => (s ++ after_username, removed0, new_ue)
  | false, _ => (s ++ [64] ++ after_username, removed0, new_ue + 1)
  end.

Lemma un_pick_other ne c r s removed0 new_ue : c <> 64 -> c <> 58 ->
  un_pick ne (c :: r) s removed0 new_ue
  = if ne then (s ++ c :: r, removed0, new_ue) else (s ++ [64] ++ c :: r, removed0, new_ue + 1).
Proof.
  intros H1 H2. unfold un_pick. destruct ne; (destruct c as [|p]; [reflexivity|]);
    do 7 (try (destruct p as [p|p|]; try reflexivity)); congruence.
Qed.

Lemma enc1_not_nil S b : enc1 S b <> [].
Proof. unfold enc1. destruct (should_encode S b); discriminate. Qed.

Lemma encode_nil_iff S bs : encode S bs = [] <-> bs = [].
Proof.
  split; [|intros ->; reflexivity]. destruct bs as [|b r]; [reflexivity|]. rewrite encode_cons.
  intros H. apply app_eq_nil in H. destruct H as [H _]. exfalso. exact (enc1_not_nil S b H).
Qed.

Lemma nnth_app_at_loc a x b : nnth (a ++ x :: b) (nlen a) = Some x.
Proof. unfold nnth, nlen. rewrite Nat2N.id. rewrite nth_error_app2 by lia. rewrite Nat.sub_diag. reflexivity. Qed.

Lemma nfirstn_2 a b x : nfirstn (nlen a + nlen b) (a ++ b ++ x) = a ++ b.
Proof. rewrite app_assoc. replace (nlen a + nlen b) with (nlen (a ++ b)) by apply nlen_app. apply nfirstn_app_len. Qed.

Lemma nskipn_2 a b x : nskipn (nlen a + nlen b) (a ++ b ++ x) = x.
Proof. rewrite app_assoc. replace (nlen a + nlen b) with (nlen (a ++ b)) by apply nlen_app. apply nskipn_app_len. Qed.

Lemma nskipn_3 a b c x : nskipn (nlen a + nlen b + nlen c) (a ++ b ++ c ++ x) = x.
Proof.
  rewrite (app_assoc a b). replace (nlen a + nlen b) with (nlen (a ++ b)) by apply nlen_app. apply nskipn_2.
Qed.

(* the text the two setters store *)
Definition uenc (s : list N) : list N := encode T_USERINFO (utf8_encode s).

Lemma uenc_clean s : usv_list s -> clean T_USERINFO (uenc s) = true.
Proof. intros H. apply encode_is_clean; [exact stable_USERINFO | apply utf8_encode_bytes; exact H]. Qed.

Lemma uenc_nil_iff s : uenc s = [] <-> s = [].
Proof. unfold uenc. rewrite encode_nil_iff. apply utf8_encode_nil_iff. Qed.

Section Shift.
Variable dbg : bool.
Variables (sch X : list N) (dh dp : N) (dq df : option N) (hi : host_internal) (pt : option N).

Definition A : list N := sch ++ [58; 47; 47].
Definition sh_url (Un Ur : list N) : url :=
  let b := nlen A + nlen Un + nlen Ur in
  mkUrl (A ++ Un ++ Ur ++ X) (nlen sch) (nlen A + nlen Un) b (b + dh) hi pt (b + dp)
        (option_map (N.add b) dq) (option_map (N.add b) df).

Lemma A_len : nlen A = nlen sch + 3.
Proof. unfold A. rewrite nlen_app. reflexivity. Qed.

Lemma sh_ser Un Ur : ser (sh_url Un Ur) = A ++ Un ++ Ur ++ X.
Proof. reflexivity. Qed.

(* the record with its fields written out; the proofs below start from it *)
Lemma sh_fields Un Ur b : b = nlen A + nlen Un + nlen Ur ->
  sh_url Un Ur = mkUrl (A ++ Un ++ Ur ++ X) (nlen sch) (nlen A + nlen Un) b (b + dh) hi pt (b + dp)
                       (option_map (N.add b) dq) (option_map (N.add b) df).
Proof. intros ->. reflexivity. Qed.

(* the offsets behind the userinfo are stored relative to its end b; replacing text in front of b moves b to b' *)
Lemma adjust_shift b b' d removed added : removed <= b -> b + added = b' + removed ->
  adjust dbg (b + d) removed added = Some (b' + d).
Proof. intros H1 H2. rewrite adjust_ge by lia. f_equal. lia. Qed.

Lemma adjust_base b b' removed added : removed <= b -> b + added = b' + removed -> adjust dbg b removed added = Some b'.
Proof. intros H1 H2. rewrite adjust_ge by lia. f_equal. lia. Qed.

Lemma adjust_opt_shift b b' o removed added : removed <= b -> b + added = b' + removed ->
  adjust_opt dbg (option_map (N.add b) o) removed added = Some (option_map (N.add b') o).
Proof.
  intros H1 H2. destruct o as [d|]; cbn [option_map adjust_opt]; [|reflexivity].
  rewrite (adjust_shift b b' d removed added H1 H2). reflexivity.
Qed.

(* the common tail of the setters: the four offsets behind the host start moved, the record rebuilt *)
Lemma tail_eval b b' removed added s' ue' hs' : removed <= b -> b + added = b' + removed ->
  (he <- adjust dbg (b + dh) removed added ;;
   ps <- adjust dbg (b + dp) removed added ;;
   qs <- adjust_opt dbg (option_map (N.add b) dq) removed added ;;
   fs <- adjust_opt dbg (option_map (N.add b) df) removed added ;;
   Some (mkUrl s' (nlen sch) ue' hs' he hi pt ps qs fs, SOk))
  = Some (mkUrl s' (nlen sch) ue' hs' (b' + dh) hi pt (b' + dp) (option_map (N.add b') dq) (option_map (N.add b') df), SOk).
Proof.
  intros H1 H2. rewrite !(adjust_shift b b' _ removed added H1 H2), !(adjust_opt_shift b b' _ removed added H1 H2). reflexivity.
Qed.

Lemma tail_eval5 b b' removed added s' ue' : removed <= b -> b + added = b' + removed ->
  (hs <- adjust dbg b removed added ;;
   he <- adjust dbg (b + dh) removed added ;;
   ps <- adjust dbg (b + dp) removed added ;;
   qs <- adjust_opt dbg (option_map (N.add b) dq) removed added ;;
   fs <- adjust_opt dbg (option_map (N.add b) df) removed added ;;
   Some (mkUrl s' (nlen sch) ue' hs he hi pt ps qs fs, SOk))
  = Some (mkUrl s' (nlen sch) ue' b' (b' + dh) hi pt (b' + dp) (option_map (N.add b') dq) (option_map (N.add b') df), SOk).
Proof. intros H1 H2. rewrite (adjust_base b b' _ _ H1 H2). cbn [bindo]. exact (tail_eval b b' _ _ _ _ _ H1 H2). Qed.

(* set_password with a non-empty argument *)
Theorem set_password_some_sh Un Ur p : usv_list p -> p <> [] ->
  cannot_have_credentials_or_port (sh_url Un Ur) = Some false ->
  set_password dbg (sh_url Un Ur) (Some p) = Some (sh_url Un (58 :: uenc p ++ [64]), SOk).
Proof.
  intros Hu Hne Hc. unfold set_password. rewrite Hc. cbn [bindo].
  destruct p as [|c r]; [contradiction|]. set (p := c :: r) in *.
  rewrite (sh_fields Un Ur _ eq_refl). unfold u_slice_from, truncate.
  cbn [ser scheme_end username_end host_start host_end hosti port path_start query_start fragment_start].
  rewrite slice_from_o_some by lens. rewrite nskipn_3, nfirstn_2. cbn [bindo].
  rewrite push_encoded_eq by exact Hu. fold (uenc p).
  set (s := (((A ++ Un) ++ [58]) ++ uenc p) ++ [64]).
  assert (nlen s = nlen A + nlen Un + nlen (58 :: uenc p ++ [64])) as Ls by (unfold s; lens).
  rewrite (tail_eval (nlen A + nlen Un + nlen Ur) (nlen s)) by lia.
  rewrite (sh_fields Un _ _ Ls). do 3 f_equal. unfold s. rewrite <- !app_assoc. cbn [app]. rewrite <- !app_assoc. reflexivity.
Qed.

(* set_password without (or with an empty) argument *)
Definition pw_arg_empty (pw : option (list N)) : Prop := match pw with Some (_ :: _) => False | _ => True end.

Lemma pw_arg_empty_nil pw : pw_arg_empty pw -> match pw with Some x => x | None => [] end = [].
Proof. destruct pw as [[|? ?]|]; [reflexivity | contradiction | reflexivity]. Qed.

(* there is a password: it is removed, and the '@' too when the user name is empty *)
Theorem set_password_clear_sh Un P pw : pw_arg_empty pw ->
  cannot_have_credentials_or_port (sh_url Un (58 :: P ++ [64])) = Some false ->
  set_password dbg (sh_url Un (58 :: P ++ [64])) pw
  = Some (sh_url Un (match Un with [] => [] | _ => [64] end), SOk).
Proof.
  intros Hpw Hc. unfold set_password. rewrite Hc. cbn [bindo]. cbv zeta. rewrite (pw_arg_empty_nil pw Hpw).
  set (Ur := 58 :: P ++ [64]). set (b := nlen A + nlen Un + nlen Ur).
  assert (nlen Ur = nlen P + 2) as LUr by (unfold Ur; lens).
  (* the text split at the two bytes the setter looks at *)
  assert (A ++ Un ++ Ur ++ X = (A ++ Un) ++ 58 :: P ++ 64 :: X) as E1
    by (unfold Ur; rewrite <- !app_assoc; cbn [app]; rewrite <- app_assoc; reflexivity).
  assert (A ++ Un ++ Ur ++ X = ((A ++ Un) ++ 58 :: P) ++ 64 :: X) as E2 by (rewrite E1, <- !app_assoc; reflexivity).
  assert (b - 1 = nlen ((A ++ Un) ++ 58 :: P)) as Eb by (unfold b; lens).
  rewrite (sh_fields Un Ur b eq_refl). unfold byte_is, byte_at.
  cbn [ser scheme_end username_end host_start host_end hosti port path_start query_start fragment_start].
  (* e = where the cut ends: behind the '@' when the user name is empty, in front of it otherwise *)
  set (e := if nlen sch + 3 =? nlen A + nlen Un then b else b - 1).
  assert (e = match Un with [] => b | _ => b - 1 end) as Ee.
  { unfold e. rewrite A_len. destruct Un as [|c0 r0]; [change (nlen []) with 0; rewrite N.add_0_r, N.eqb_refl; reflexivity|].
    replace (nlen sch + 3 =? nlen sch + 3 + nlen (c0 :: r0)) with false; [reflexivity|]. symmetry. apply N.eqb_neq. lens. }
  rewrite E1 at 1. rewrite <- (nlen_app A Un), nnth_app_at_loc. cbn [bindo]. rewrite N.eqb_refl.
  replace (1 <=? b) with true by (symmetry; apply N.leb_le; unfold b; lia).
  rewrite E2 at 1. rewrite Eb, nnth_app_at_loc. cbn [bindo]. rewrite N.eqb_refl.
  replace (if dbg then assert_o true else Some tt) with (Some tt) by (destruct dbg; reflexivity). cbn [bindo].
  assert (nlen (A ++ Un) <= e /\ e <= b) as [L1 L2] by (rewrite Ee; unfold b; destruct Un; lens).
  replace ((nlen (A ++ Un) <=? e) && (e <=? nlen (A ++ Un ++ Ur ++ X))) with true
    by (symmetry; apply andb_true_iff; split; apply N.leb_le; [exact L1 | unfold b in L2; lens]).
  cbn [assert_o bindo]. unfold sub_off, sub_off_opt.
  set (b' := nlen (A ++ Un) + (b - e)).
  assert (e - nlen (A ++ Un) <= b /\ b + 0 = b' + (e - nlen (A ++ Un))) as [S1 S2] by (unfold b'; lia).
  rewrite (tail_eval5 b b' _ _ _ _ S1 S2).
  rewrite E1 at 1. rewrite nfirstn_app_len. do 2 f_equal.
  assert (nskipn e (A ++ Un ++ Ur ++ X) = match Un with [] => X | _ => 64 :: X end) as Es.
  { rewrite Ee. destruct Un; [unfold b; rewrite <- !nlen_app, !app_assoc; apply nskipn_app_len | rewrite E2, Eb; apply nskipn_app_len]. }
  rewrite Es. assert (b' = nlen A + nlen Un + nlen (match Un with [] => [] | _ => [64] end)) as Eb'
    by (unfold b'; rewrite Ee; destruct Un; unfold b; lens).
  rewrite (sh_fields Un _ b' Eb'). f_equal; [destruct Un; rewrite <- !app_assoc; reflexivity | apply nlen_app].
Qed.

(* there is no password: nothing changes *)
Theorem set_password_noop_sh Un Ur c0 R pw : pw_arg_empty pw -> Ur ++ X = c0 :: R -> c0 <> 58 ->
  cannot_have_credentials_or_port (sh_url Un Ur) = Some false ->
  set_password dbg (sh_url Un Ur) pw = Some (sh_url Un Ur, SOk).
Proof.
  intros Hpw HX Hc0 Hc. unfold set_password. rewrite Hc. cbn [bindo]. cbv zeta. rewrite (pw_arg_empty_nil pw Hpw).
  unfold byte_is, byte_at. rewrite sh_ser. change (username_end (sh_url Un Ur)) with (nlen A + nlen Un).
  rewrite HX, (app_assoc A Un), <- nlen_app, nnth_app_at_loc. cbn [bindo].
  replace (c0 =? 58) with false by (symmetry; apply N.eqb_neq; exact Hc0). reflexivity.
Qed.

(* set_username *)
Lemma set_username_unfold u un : set_username dbg u un =
  (c <- cannot_have_credentials_or_port u ;;
   if c then Some (u, SErrUnit) else
   let username_start := scheme_end u + 3 in
   (if dbg then x <- u_slice u (scheme_end u) username_start ;; assert_o (list_eqb x s_css) else Some tt) ;;;
   cur <- u_slice u username_start (username_end u) ;;
   if list_eqb cur (utf8_encode un) then Some (u, SOk) else
   after_username <- u_slice_from u (username_end u) ;;
   let s := push_encoded T_USERINFO (truncate (ser u) username_start) un in
   let removed0 := username_end u in
   let new_ue := nlen s in
   let new_empty := new_ue =? username_start in
   let '(s', removed, added) := un_pick new_empty after_username s removed0 new_ue in
   hs <- adjust dbg (host_start u) removed added ;;
   he <- adjust dbg (host_end u) removed added ;;
   ps <- adjust dbg (path_start u) removed added ;;
   qs <- adjust_opt dbg (query_start u) removed added ;;
   fs <- adjust_opt dbg (fragment_start u) removed added ;;
   Some (mkUrl s' (scheme_end u) new_ue hs he (hosti u) (port u) ps qs fs, SOk)).
Proof. reflexivity. Qed.

Lemma un_pick_at ne r s r0 nu : un_pick ne (64 :: r) s r0 nu = if ne then (s ++ r, r0 + 1, nu) else (s ++ 64 :: r, r0, nu).
Proof. destruct ne; reflexivity. Qed.
Lemma un_pick_colon ne r s r0 nu : un_pick ne (58 :: r) s r0 nu = (s ++ 58 :: r, r0, nu).
Proof. destruct ne; reflexivity. Qed.

(* everything in front of the case split *)
Lemma set_username_sh_pre Un Ur un : usv_list un ->
  cannot_have_credentials_or_port (sh_url Un Ur) = Some false ->
  set_username dbg (sh_url Un Ur) un =
  if list_eqb Un (utf8_encode un) then Some (sh_url Un Ur, SOk) else
  (let b := nlen A + nlen Un + nlen Ur in
   let '(s', removed, added) := un_pick (nlen (A ++ uenc un) =? nlen sch + 3) (Ur ++ X) (A ++ uenc un) (nlen A + nlen Un) (nlen (A ++ uenc un)) in
   hs <- adjust dbg b removed added ;;
   he <- adjust dbg (b + dh) removed added ;;
   ps <- adjust dbg (b + dp) removed added ;;
   qs <- adjust_opt dbg (option_map (N.add b) dq) removed added ;;
   fs <- adjust_opt dbg (option_map (N.add b) df) removed added ;;
   Some (mkUrl s' (nlen sch) (nlen (A ++ uenc un)) hs he hi pt ps qs fs, SOk)).
Proof.
  intros Hu Hc. rewrite set_username_unfold, Hc. cbn [bindo]. cbv zeta.
  rewrite (sh_fields Un Ur _ eq_refl). unfold u_slice, u_slice_from, truncate.
  cbn [ser scheme_end username_end host_start host_end hosti port path_start query_start fragment_start].
  assert (nlen (A ++ Un ++ Ur ++ X) = nlen sch + 3 + nlen Un + nlen Ur + nlen X) as LS by (rewrite !nlen_app, A_len; lia).
  assert ((if dbg then x <- slice_o (A ++ Un ++ Ur ++ X) (nlen sch) (nlen sch + 3) ;; assert_o (list_eqb x s_css) else Some tt) = Some tt) as ->.
  { destruct dbg; [|reflexivity]. rewrite slice_o_some by lia. cbn [bindo].
    replace (nlen sch + 3 - nlen sch) with 3 by lia. unfold A. rewrite <- app_assoc. rewrite nskipn_app_len. reflexivity. }
  cbn [bindo]. rewrite <- A_len, slice_o_mid. cbn [bindo].
  destruct (list_eqb Un (utf8_encode un)); [reflexivity|].
  rewrite slice_from_o_some by (rewrite A_len in *; lia). rewrite nskipn_2. cbn [bindo].
  rewrite nfirstn_app_len. rewrite push_encoded_eq by exact Hu. fold (uenc un). rewrite A_len. reflexivity.
Qed.

(* user name followed by '@' (no password) *)
Theorem set_username_user_sh Un un : usv_list un ->
  cannot_have_credentials_or_port (sh_url Un [64]) = Some false ->
  set_username dbg (sh_url Un [64]) un
  = Some (if list_eqb Un (utf8_encode un) then sh_url Un [64]
          else sh_url (uenc un) (match uenc un with [] => [] | _ => [64] end), SOk).
Proof.
  intros Hu Hc. rewrite (set_username_sh_pre Un [64] un Hu Hc). destruct (list_eqb Un (utf8_encode un)); [reflexivity|].
  cbv zeta. cbn [app]. rewrite un_pick_at.
  destruct (uenc un) as [|e0 er] eqn:Ee.
  - replace (nlen (A ++ []) =? nlen sch + 3) with true by (symmetry; apply N.eqb_eq; rewrite app_nil_r; apply A_len).
    rewrite (tail_eval5 _ (nlen A + nlen (@nil N) + nlen (@nil N))) by lens.
    rewrite (sh_fields [] [] _ eq_refl). do 2 f_equal. f_equal; [rewrite app_nil_r; reflexivity | lens].
  - replace (nlen (A ++ e0 :: er) =? nlen sch + 3) with false by (symmetry; apply N.eqb_neq; rewrite nlen_app, A_len, nlen_cons; lia).
    rewrite (tail_eval5 _ (nlen A + nlen (e0 :: er) + nlen [64])) by lens.
    rewrite (sh_fields (e0 :: er) [64] _ eq_refl). do 2 f_equal. f_equal; [rewrite <- !app_assoc; reflexivity | lens].
Qed.

(* user name followed by ':' password '@' *)
Theorem set_username_pw_sh Un P un : usv_list un ->
  cannot_have_credentials_or_port (sh_url Un (58 :: P ++ [64])) = Some false ->
  set_username dbg (sh_url Un (58 :: P ++ [64])) un
  = Some (if list_eqb Un (utf8_encode un) then sh_url Un (58 :: P ++ [64]) else sh_url (uenc un) (58 :: P ++ [64]), SOk).
Proof.
  intros Hu Hc. set (Ur := 58 :: P ++ [64]) in *.
  rewrite (set_username_sh_pre Un Ur un Hu Hc). destruct (list_eqb Un (utf8_encode un)); [reflexivity|].
  cbv zeta. unfold Ur at 1. cbn [app]. rewrite un_pick_colon.
  rewrite (tail_eval5 _ (nlen A + nlen (uenc un) + nlen Ur)) by lens.
  rewrite (sh_fields (uenc un) Ur _ eq_refl). do 2 f_equal.
  f_equal; [unfold Ur; rewrite <- !app_assoc; cbn [app]; rewrite <- !app_assoc; reflexivity | lens].
Qed.

(* no userinfo at all: X starts with a byte that is neither '@' nor ':' (a host text does) *)
Theorem set_username_none_sh c0 R un : usv_list un -> X = c0 :: R -> c0 <> 64 -> c0 <> 58 ->
  cannot_have_credentials_or_port (sh_url [] []) = Some false ->
  set_username dbg (sh_url [] []) un
  = Some (match un with [] => sh_url [] [] | _ => sh_url (uenc un) [64] end, SOk).
Proof.
  intros Hu HX H64 H58 Hc. rewrite (set_username_sh_pre [] [] un Hu Hc). destruct un as [|u0 ur]; [reflexivity|].
  replace (list_eqb [] (utf8_encode (u0 :: ur))) with false.
  2:{ destruct (utf8_encode (u0 :: ur)) eqn:E; [|reflexivity]. apply (proj1 (utf8_encode_nil_iff _)) in E. discriminate E. }
  cbv zeta. cbn [app]. rewrite HX, un_pick_other by assumption.
  destruct (uenc (u0 :: ur)) as [|e0 er] eqn:Ee; [apply (proj1 (uenc_nil_iff _)) in Ee; discriminate Ee|].
  replace (nlen (A ++ e0 :: er) =? nlen sch + 3) with false by (symmetry; apply N.eqb_neq; rewrite nlen_app, A_len, nlen_cons; lia).
  rewrite (tail_eval5 _ (nlen A + nlen (e0 :: er) + nlen [64])) by lens.
  rewrite (sh_fields (e0 :: er) [64] _ eq_refl), HX. do 2 f_equal. f_equal; [rewrite <- !app_assoc; reflexivity | lens].
Qed.
End Shift.
