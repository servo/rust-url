(* Proofs/C03_SessNoSS.v - a path_segments_mut session on an authority-less record without the "/." marker (hence,
   with AS, of a non-special scheme) never yields a path that starts with "//".
   The scheme is not file, so the session is the fold session_text over the path text (C06_SegPush), and
     no_slash2 P : the second byte of P is not '/'
   holds of the path at the start (the record has no authority) and is kept by every operation: clear / pop /
   pop_if_empty take a prefix; push / extend append '/' only to a text longer than one byte, and then the
   percent-encoded segment, which does not begin with '/' (PATH_SEGMENT contains '/': it is written %2F). *)
From RU Require Import Base.Prelude Model.UrlRecord Model.Parser Model.Setters Model.WF
  Proofs.ListN Proofs.C03_WF Proofs.C06_List Proofs.C06_WFI Proofs.C06_Segments Proofs.C06_SegPush Proofs.C06_SegFile
  Proofs.C06_HostNone Proofs.C06_PathNoAuth Proofs.C06_PathMore Proofs.C03_Reach.
Open Scope N_scope.
Open Scope list_scope.

Definition no_slash2 (P : list N) : Prop := nnth P 1 <> Some 47.

Lemma no_slash2_prefix P k : no_slash2 P -> no_slash2 (nfirstn k P).
Proof.
  intros H E. destruct (N.ltb_spec 1 k) as [L|L]; [rewrite nnth_nfirstn in E by exact L; exact (H E)|].
  apply nnth_lt in E. pose proof (nlen_nfirstn_le k P). lia.
Qed.

Lemma no_slash2_push st P seg : no_slash2 P -> no_slash2 (push_text st P seg).
Proof.
  intros H. unfold push_text. destruct (seg_skipped (strip_tnl seg)); [exact H|].
  assert (nnth (seg_text st seg) 0 <> Some 47) as Ht.
  { destruct (seg_text st seg) as [|b t] eqn:E; [discriminate|]. intros [= ->]. exact (seg_text_head st seg _ _ E eq_refl). }
  destruct (N.ltb_spec 1 (nlen P)) as [L|L]; cbn [orb].
  - unfold no_slash2. rewrite <- app_assoc, nnth_app_lt by lia. exact H.
  - unfold no_slash2. destruct (N.eqb_spec (nlen P) 0) as [E|E].
    + destruct P; [exact Ht | discriminate E].
    + rewrite nnth_app_ge by lia. replace (1 - nlen P) with 0 by lia. exact Ht.
Qed.

Lemma no_slash2_op st P o : no_slash2 P -> no_slash2 (op_text st P o).
Proof.
  intros H. destruct o; cbn [op_text].
  - apply no_slash2_prefix, H.
  - unfold pop_if_empty_text. destruct (nlen P <=? 1); [exact H|].
    destruct (ends_with_byte 47 (nskipn 1 P)); [apply no_slash2_prefix|]; exact H.
  - unfold pop_text. destruct (nlen P <=? 1); [|apply no_slash2_prefix]; exact H.
  - apply no_slash2_push, H.
  - unfold extend_text. revert P H. induction ss as [|seg r IH]; intros P H; [exact H|].
    apply IH, no_slash2_push, H.
Qed.

Lemma no_slash2_session st ops : forall P, no_slash2 P -> no_slash2 (session_text st P ops).
Proof. unfold session_text. induction ops as [|o r IH]; intros P H; [exact H | apply IH, no_slash2_op, H]. Qed.

Lemma no_slash2_starts P : no_slash2 P -> starts_with s_ss P = false.
Proof.
  destruct P as [|c0 [|c1 r]]; cbn [starts_with s_ss]; intros H; [reflexivity | apply andb_false_r|].
  destruct (N.eqb_spec 47 c1) as [<-|]; [destruct (H eq_refl) | rewrite andb_false_r; reflexivity].
Qed.

Theorem session_no_ss dbg u ops u' : wf_b u = true -> noauth_slash_path u ->
  st_is_special (scheme_type_of (b_scheme u)) = false ->
  Forall psm_op_usv ops -> path_segments_session dbg u ops = Some (u', SOk) -> path_starts_with_2slash u' = false.
Proof.
  intros W (Ha & Hsl & Hnm) Hns Hops H.
  assert (st_is_file (st_of u) = false) as Hf by (unfold st_of; fold (b_scheme u); destruct (scheme_type_of (b_scheme u)); easy).
  rewrite (path_segments_session_exact dbg u ops u' W Hsl Hf Hops H), (wg_2slash u _ W Ha).
  apply no_slash2_starts, no_slash2_session.
  (* a second '/' behind "scheme:/" would be an authority *)
  intros E. pose proof (nnth_lt _ _ _ E) as L. unfold path_bytes in E, L.
  pose proof (nlen_nfirstn_le (path_end u - path_start u) (nskipn (path_start u) (ser u))) as L'.
  rewrite nnth_nfirstn, nnth_nskipn, Hnm in E by lia.
  destruct (wf_scheme_facts u W) as (_ & Hc & _). rewrite <- N.add_assoc in E. change (1 + 1) with 2 in E.
  unfold has_authority_b in Ha. rewrite css_of_bytes in Ha by first [exact E | apply byte_eqb_nnth; assumption]. discriminate Ha.
Qed.
