(* Proofs/C08_RelFileCanon.v - the make_relative inverse law for canonical file records (C02's fifth form FileCanon) and
   for the records of C02's histories ReachC7:
     file_curl_hier      a canonical file record is  hier_url ("file://" host) 4 7 7 ..
     join_root_file      the reference "/" [?q][#f] against  file://host/name : the one-slash arm of parse_file copies
                         host_str of the base and builds the record of  file://host/
     FileCanon_same_host inside MR_ok two canonical file records have the same host
     relative_FileCanon  the law for two FileCanon records
     relative_CanonF     ... for two records each in one of the five canonical forms
     relative_reach7     ... for two records of ReachC7 histories *)
From Coq Require Import String.
From RU Require Import Base.Prelude Base.Utf8 Base.Utf8Facts Model.AsciiSet Gen.Tables Model.PercentEncoding
  Model.HostT Model.Host Model.UrlRecord Model.Parser Model.Setters Model.WF Model.MakeRelative Model.KnownC08
  Proofs.ListN Proofs.C14_Set Proofs.C14_Enc Proofs.C14_Views Proofs.C02_Enc Proofs.C02_Parts Proofs.C02_Opaque
  Proofs.C02_Path Proofs.C02_PathL1 Proofs.C02_PathSp Proofs.C02_SetQF Proofs.C02_Reach Proofs.C02_AuthParts
  Proofs.C02_Hist Proofs.C02_Canon Proofs.C02_SetHostCanon Proofs.C02_Reach4 Proofs.C02_Reach6 Proofs.C02_HistInst Proofs.C09_Host
  Proofs.C02_File Proofs.C02_FileCanon Proofs.C02_FileHost Proofs.C02_FileParse Proofs.C02_FileSet Proofs.C02_Reach8
  Proofs.C08_Input Proofs.C08_Simple Proofs.C08_Contain Proofs.C08_RelEval Proofs.C08_RelPath Proofs.C08_RelJoin
  Proofs.C08_RelMr Proofs.C08_RelLaw Proofs.C08_RelFile Proofs.C08_Reach.
Open Scope N_scope.
Open Scope list_scope.

Lemma qf_text_split_not_slash q f o r : inp_split_first (qf_text q f) = (o, r) ->
  match o with Some c => is_slash_or_bslash c | None => false end = false.
Proof.
  unfold inp_split_first, qf_text.
  destruct q as [x|]; [|destruct f as [y|]]; cbn [qf_qtext qf_ftext app].
  - rewrite inp_next_cons by reflexivity. intros H. inversion H. reflexivity.
  - rewrite inp_next_cons by reflexivity. intros H. inversion H. reflexivity.
  - cbn. intros H. inversion H. reflexivity.
Qed.

Lemma qf_text_not_wdl_segment q f : starts_with_wdl_segment (qf_text q f) = false.
Proof.
  unfold starts_with_wdl_segment, qf_text.
  destruct q as [x|]; [|destruct f as [y|]]; cbn [qf_qtext qf_ftext app].
  - rewrite inp_next_cons by reflexivity. destruct (inp_next (x ++ qf_ftext f)) as [[b r2]|]; reflexivity.
  - rewrite inp_next_cons by reflexivity. destruct (inp_next y) as [[b r2]|]; reflexivity.
  - reflexivity.
Qed.

Section RelFileCanon.
Variable dbg : bool.
Variable hp hpo : list N -> result host.
Variable hd : host -> list N.
Notation join b input := (parse_url dbg hp hpo hd None (Some b) input).
Notation front := (file_front hd).

Lemma file_curl_hier ho segs last q f :
  file_curl hd ho (path_text segs last) q f
  = hier_url (front ho) 4 7 7 (nlen (front ho)) (fhost_hi ho) None segs last q f.
Proof. reflexivity. Qed.

Lemma front_file ho : exists R, front ho = s_file ++ [58; 47; 47] ++ R.
Proof. exists (fhost_text hd ho). reflexivity. Qed.

(* what the one-slash arm of parse_file reads off a canonical base: "file://" host, its length, the host kind *)
Lemma one_slash_front ho segs last q f : fhost_ok hp hd ho ->
  match host_str (file_curl hd ho (path_text segs last) q f) with
  | Some (Some hs) => (s_file_css ++ hs, nlen (s_file_css ++ hs), hosti (file_curl hd ho (path_text segs last) q f))
  | _ => (s_file_css, 7, HI_None)
  end = (front ho, nlen (front ho), fhost_hi ho).
Proof.
  intros Kh. unfold host_str, has_host. destruct ho as [h|].
  - destruct Kh as (Hne & _). cbn [file_curl qf_url hosti fhost_hi].
    assert (match hi_of_host h with HI_None => false | _ => true end = true) as ->.
    { destruct h as [[|c d]| |]; try reflexivity. exfalso. apply Hne. reflexivity. }
    unfold u_slice, file_curl, qf_url. cbn [ser host_start host_end]. unfold file_pre, file_front. cbn [fhost_text].
    rewrite <- !app_assoc. rewrite nlen_app. change 7 with (nlen s_file_css). rewrite slice_mid. cbn [bindo]. rewrite ?nlen_app. reflexivity.
  - cbn [file_curl qf_url hosti fhost_hi]. unfold file_front. cbn [fhost_text]. rewrite app_nil_r. reflexivity.
Qed.

(* "/" [?q][#f] against  file://host/name  gives  file://host/ [?q][#f] *)
Theorem join_root_file ho blast bq bf tq tf :
  fhost_ok hp hd ho -> no_slash blast = true -> is_normalized_wdl blast = false ->
  opt_clean T_SPECIAL_QUERY tq -> opt_clean T_FRAGMENT tf ->
  let P := front ho ++ [47] in
  opt_le (qf_qs (nlen P) tq) U32_MAX_P -> opt_le (qf_fs (nlen P) tq tf) U32_MAX_P ->
  join (file_curl hd ho (path_text [] blast) bq bf) (47 :: qf_text tq tf)
  = POk (file_curl hd ho (path_text [] []) tq tf).
Proof.
  intros Kh Hbl Hnw Hq Hf P Bq Bf.
  set (b := file_curl hd ho (path_text [] blast) bq bf).
  assert (forallb above_space (47 :: qf_text tq tf) = true) as Habove.
  { cbn [forallb]. rewrite (sqf_above tq tf Hq Hf). reflexivity. }
  unfold parse_url. rewrite trim_c0_id by (apply all_above_edge; exact Habove).
  rewrite parse_scheme_first_not_alpha by (rewrite above_ntnl by exact Habove; reflexivity).
  assert (inp_next (47 :: qf_text tq tf) = Some (47, qf_text tq tf)) as En by (apply inp_next_cons; reflexivity).
  unfold inp_starts_with_char. rewrite En. replace (47 =? 35) with false by reflexivity.
  unfold b. rewrite file_curl_cbb.
  assert (b_scheme (file_curl hd ho (path_text [] blast) bq bf) = s_file) as Hsch.
  { rewrite file_curl_hier. rewrite hier_b_scheme by (left; exists s_file, (fhost_text hd ho); split; reflexivity). reflexivity. }
  rewrite Hsch. change (scheme_type_of s_file) with STFile. cbn [st_is_file].
  unfold parse_file. unfold inp_split_first at 1. rewrite En.
  change (is_slash_or_bslash 47) with true. cbv iota.
  destruct (inp_split_first (qf_text tq tf)) as [nc an] eqn:E2. rewrite (qf_text_split_not_slash _ _ _ _ E2).
  rewrite qf_text_not_wdl_segment. cbn [negb].
  assert (base_first_segment (file_curl hd ho (path_text [] blast) bq bf) = Some blast) as Hfs.
  { unfold base_first_segment. rewrite file_curl_hier, hier_path. unfold path_text. cbn [segs_text map concat app].
    pose proof (split_on_aux_segs [] blast eq_refl Hbl) as E. cbn [segs_text map concat app] in E.
    unfold split_on. rewrite E. reflexivity. }
  rewrite Hfs. rewrite Hnw. rewrite (one_slash_front ho [] blast bq bf Kh).
  (* the path state on "/" *)
  unfold parse_path. rewrite floop_slash. cbn [push_pending].
  rewrite (finish_plain_f dbg (front ho) (front ho ++ [47]) (nlen (front ho)) true false []); try reflexivity.
  2:{ rewrite nlen_app. replace (nlen (front ho) + nlen [47] - 1) with (nlen (front ho) + nlen (@nil N)) by (unfold nlen; cbn [length]; lia).
      rewrite <- (app_nil_r (front ho ++ [47])). rewrite <- app_assoc. change ([47] ++ []) with ([] ++ [47] : list N). apply slice_mid. }
  cbn [pbind].
  pose proof (file_path_host dbg (front ho) [] [] tq tf false eq_refl eq_refl I) as HP.
  unfold parse_path in HP. cbn [segs_text map concat app] in HP. rewrite HP. cbn [pbind].
  rewrite pqf_canon; [| reflexivity | exact Hq | exact Hf | exact Bq | exact Bf].
  cbn [pbind]. reflexivity.
Qed.

(* two canonical file records inside MR_ok *)
Lemma FileCanon_same_host hob hot bsegs blast bq bf tsegs tlast tq tf :
  fhost_ok hp hd hob -> fhost_ok hp hd hot ->
  mr_ok (file_curl hd hob (path_text bsegs blast) bq bf) (file_curl hd hot (path_text tsegs tlast) tq tf) = true ->
  hob = hot.
Proof.
  intros Kb Kt H. unfold mr_ok, mr_class in H. rewrite !file_curl_cbb in H.
  rewrite !file_curl_hier in H. rewrite !hier_path in H.
  change (path_start (hier_url (front hob) 4 7 7 (nlen (front hob)) (fhost_hi hob) None bsegs blast bq bf)) with (nlen (front hob)) in H.
  change (path_start (hier_url (front hot) 4 7 7 (nlen (front hot)) (fhost_hi hot) None tsegs tlast tq tf)) with (nlen (front hot)) in H.
  rewrite !hier_pre_of in H.
  destruct (list_eqb (front hob) (front hot)) eqn:E; [|cbn [negb] in H; discriminate H].
  apply list_eqb_spec in E. unfold file_front in E. apply app_inv_head in E.
  destruct hob as [hb|]; destruct hot as [ht|]; cbn [fhost_text] in E.
  - destruct Kb as (_ & _ & _ & Pb & _). destruct Kt as (_ & _ & _ & Pt & _). rewrite E in Pb. rewrite Pb in Pt.
    inversion Pt. reflexivity.
  - exfalso. destruct Kb as (_ & _ & (_ & Hn & _) & _). apply Hn. exact E.
  - exfalso. destruct Kt as (_ & _ & (_ & Hn & _) & _). apply Hn. symmetry. exact E.
  - reflexivity.
Qed.

Theorem relative_FileCanon b t r : FileCanon hp hd b -> FileCanon hp hd t ->
  mr_ok b t = true -> make_relative dbg b t = Some (Some r) ->
  join b r = POk t.
Proof.
  intros [hob bsegs blast bq bf Kb] [hot tsegs tlast tq tf Kt] Hok Hmr.
  pose proof (FileCanon_same_host hob hot bsegs blast bq bf tsegs tlast tq tf (fk_host _ _ _ _ _ _ _ Kb) (fk_host _ _ _ _ _ _ _ Kt) Hok) as Eh.
  subst hot. rename hob into ho.
  destruct Kb as [Kbh Kbsegs Kblast _ _ _ _ _ _]. destruct Kt as [Kth Ktsegs Ktlast Ktfirst Ktq Ktf Kt1 Ktbq Ktbf].
  rewrite !file_curl_hier in *.
  apply (relative_file_hier dbg hp hpo hd (front ho) 7 7 (nlen (front ho)) (fhost_hi ho) None bsegs blast bq bf tsegs tlast tq tf r);
    try assumption.
  - constructor; try assumption.
    + apply front_file.
    + apply fsegs_no_slash. exact Kbsegs.
    + exact (proj1 (proj2 (good_seg_sp_parts blast (fseg_ok_sp blast Kblast)))).
  - intros -> -> -> Hne. rewrite <- !file_curl_hier.
    apply join_root_file; try assumption.
    + exact (proj1 (proj2 (good_seg_sp_parts blast (fseg_ok_sp blast Kblast)))).
    + apply nwdl_of_not_wdl. pose proof (fseg_ok_like blast Kblast) as Hl.
      destruct blast as [|a [|c0 r0]]; try reflexivity. cbn [starts_with_wdl]. unfold wdl_like in Hl. rewrite Hl. reflexivity.
Qed.
End RelFileCanon.

(* records of the five canonical forms, records of ReachC7 histories *)
Section Reach7.
Variable dbg : bool.
Variable hp hpo : list N -> result host.
Variable hd : host -> list N.
Hypothesis HOK : HostOK2 hp hpo hd.

Lemma make_relative_same_scheme b t r : make_relative dbg b t = Some (Some r) -> is_file b = is_file t.
Proof.
  intros H. unfold make_relative in H.
  destruct (cannot_be_a_base b) as [cb|]; cbn [bindo] in H; [|discriminate].
  destruct (if cb then Some true else cannot_be_a_base t) as [ct|]; cbn [bindo] in H; [|discriminate].
  destruct (cb || ct); [discriminate|].
  destruct (scheme b) as [sb|] eqn:Eb; cbn [bindo] in H; [|discriminate].
  destruct (scheme t) as [st|] eqn:Et; cbn [bindo] in H; [|discriminate].
  destruct (list_eqb sb st) eqn:El; cbn [negb] in H; [|discriminate].
  apply list_eqb_spec in El. subst st.
  unfold scheme, u_slice_to in Eb, Et. unfold is_file, scheme_of.
  unfold slice_to_o in Eb, Et.
  destruct (scheme_end b <=? nlen (ser b)); [|discriminate]. destruct (scheme_end t <=? nlen (ser t)); [|discriminate].
  inversion Eb as [H1]. inversion Et as [H2]. rewrite H1, H2. reflexivity.
Qed.

Theorem relative_CanonF b t r : CanonF hp hpo hd b -> CanonF hp hpo hd t ->
  mr_ok b t = true -> make_relative dbg b t = Some (Some r) ->
  parse_url dbg hp hpo hd None (Some b) r = POk t.
Proof using HOK.
  intros Cb Ct Hok Hmr. pose proof (make_relative_same_scheme b t r Hmr) as Es.
  destruct Cb as [Cb|Cb]; destruct Ct as [Ct|Ct].
  - exact (relative_Canon dbg hp hpo hd HOK b t r Cb Ct Hok Hmr).
  - exfalso. rewrite (Canon_not_file hp hpo hd b Cb), (FileCanon_is_file hp hd t Ct) in Es. discriminate Es.
  - exfalso. rewrite (Canon_not_file hp hpo hd t Ct), (FileCanon_is_file hp hd b Cb) in Es. discriminate Es.
  - exact (relative_FileCanon dbg hp hpo hd b t r Cb Ct Hok Hmr).
Qed.

Hypothesis HNE : host_nonempty hp hpo.
Hypothesis HW : host_no_wdl hp hd.

Theorem relative_reach7 b t r : ReachC7 dbg hp hpo hd b -> ReachC7 dbg hp hpo hd t ->
  mr_ok b t = true -> make_relative dbg b t = Some (Some r) ->
  parse_url dbg hp hpo hd None (Some b) r = POk t.
Proof using HOK HNE HW.
  intros Rb Rt. exact (relative_CanonF b t r (ReachC7_CanonF dbg hp hpo hd HOK HNE HW b Rb) (ReachC7_CanonF dbg hp hpo hd HOK HNE HW t Rt)).
Qed.
End Reach7.

Theorem relative_reach7_model dbg idna : IdnaOK idna -> forall b t r,
  ReachC7 dbg (host_parse idna) host_parse_opaque host_display b ->
  ReachC7 dbg (host_parse idna) host_parse_opaque host_display t ->
  mr_ok b t = true -> make_relative dbg b t = Some (Some r) ->
  parse_url dbg (host_parse idna) host_parse_opaque host_display None (Some b) r = POk t.
Proof.
  intros OK b t r.
  exact (relative_reach7 dbg _ _ _ (HostOK2_model idna OK) (host_nonempty_model idna) (host_no_wdl_model idna OK) b t r).
Qed.

(* non-vacuity on the host model (idna_clean) *)
(* base and target file records of ReachC7 histories (parse results of the three entries of parse_file, a setter), inside
   MR_ok; the reference make_relative answers; its resolution is the target *)
Definition mf_case (ob ot : option url) (rs : string) : bool :=
  match ob, ot with
  | Some b, Some t =>
      is_file b && is_file t && negb (Known_file_drive b) && negb (Known_file_drive t) && mr_ok b t
      && match make_relative true b t with
         | Some (Some r) => list_eqb r (B rs)
                            && match C08_Reach.m_join b r with POk v => url_eqb v t | _ => false end
         | _ => false
         end
  | _, _ => false
  end.

Example rel_reach7_example :
  mf_case (m_parse "file:///tmp/a") (m_parse "file:///tmp/b/c/") "b/c/" = true
  /\ mf_case (m_parse "file://h.x/a/b/c?bq") (m_parse "file://h.x/a/d/e#f") "../d/e#f" = true
  /\ mf_case (m_parse "file://h.x/a/b") (m_hist "file://h.x/a/b" [OSetQuery (Some (B "k v"))]) "?k%20v" = true
  /\ mf_case (m_parse "file://h.x/f?q") (m_parse "file://h.x/") "/" = true
  /\ mf_case (m_parse "file:/x/y/z") (m_parse "file:x") "../../x" = true
  /\ mf_case (m_parse "file://localhost/a/b#x") (m_parse "file:///a/b") "" = true.
Proof. vm_compute. repeat split. Qed.
