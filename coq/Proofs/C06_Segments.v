(* Proofs/C06_Segments.v - a path_segments_mut() editing session (open, any sequence of
   clear / pop / pop_if_empty / push / extend, drop) on a well-formed record with an authority. *)
From RU Require Import Base.Prelude Base.Utf8 Base.Utf8Facts Model.AsciiSet Gen.Tables Model.PercentEncoding
  Model.HostT Model.UrlRecord Model.Parser Model.Setters Model.WF
  Proofs.ListN Proofs.C03_WF Proofs.C06_List Proofs.C06_WFI Proofs.C06_Tail Proofs.C06_Steps Proofs.C06_FragQuery
  Proofs.C06_Suffix Proofs.C06_Front Proofs.C06_PathParser Proofs.C06_Path.

Definition psm_op_usv (o : psm_op) : Prop :=
  match o with PPush s => usv_list s | PExtend ss => Forall usv_list ss | _ => True end.

Section Session.
Variables (dbg : bool) (s0 : list N) (ps : N).
Hypothesis Hps : nlen s0 = ps.

(* the serialization during the session: the front is kept, the path has no '?' / '#', and it is
   empty or starts with '/' *)
Definition SInv (x : list N) : Prop :=
  nfirstn ps x = s0 /\ forallb no_qh (nskipn ps x) = true /\ (nlen x = ps \/ byte_eqb x ps 47 = true).

Lemma sinv_len x : SInv x -> ps <= nlen x.
Proof.
  intros (H & _). assert (nlen (nfirstn ps x) = ps) as E by (rewrite H; exact Hps).
  unfold nlen, nfirstn in *. rewrite firstn_length in E. lia.
Qed.

Lemma sinv_trunc x n : SInv x -> ps + 1 <= n -> SInv (nfirstn n x).
Proof.
  intros I Hn. pose proof (sinv_len x I) as L. destruct I as (I1 & I2 & I3). split; [|split].
  - rewrite nfirstn_nfirstn by lia. exact I1.
  - replace n with (ps + (n - ps)) by lia. rewrite nskipn_nfirstn_comm. apply forallb_nfirstn. exact I2.
  - destruct I3 as [I3|I3].
    + left. rewrite nfirstn_all by lia. exact I3.
    + right. unfold byte_eqb. rewrite nnth_nfirstn by lia. exact I3.
Qed.

Lemma sinv_clear x : SInv x -> SInv (truncate x (ps + 1)).
Proof. intros I. apply sinv_trunc; [exact I | lia]. Qed.

Lemma sinv_pop_if_empty x : SInv x ->
  SInv (if nlen x <=? ps + 1 then x else if ends_with_byte 47 (nskipn (ps + 1) x) then nfirstn (nlen x - 1) x else x).
Proof.
  intros I. destruct (nlen x <=? ps + 1) eqn:E; [exact I|].
  destruct (ends_with_byte 47 (nskipn (ps + 1) x)); [|exact I]. apply sinv_trunc; [exact I | lia].
Qed.

Lemma sinv_pop x k : SInv x -> SInv (if nlen x <=? ps + 1 then x else truncate x (ps + 1 + k)).
Proof. intros I. destruct (nlen x <=? ps + 1); [exact I|]. apply sinv_trunc; [exact I | lia]. Qed.

Lemma sinv_prefix1 x : SInv x -> byte_eqb x ps 47 = true -> nfirstn (ps + 1) x = s0 ++ [47].
Proof.
  intros (I1 & _) Hb. pose proof (byte_eqb_lt _ _ _ Hb) as L. apply byte_eqb_nnth in Hb.
  rewrite <- (nfirstn_nskipn ps (nfirstn (ps + 1) x)). rewrite nfirstn_nfirstn by lia. rewrite I1. f_equal.
  rewrite nskipn_nfirstn_comm. apply piece_one. exact Hb.
Qed.

(* one segment through parse_path in the PathSegmentSetter context *)
Lemma sinv_segment st x seg s2 hh rem :
  parse_path dbg CPathSegmentSetter st true ps x seg = POk (s2, hh, rem) ->
  SInv x -> byte_eqb x ps 47 = true -> usv_list seg -> SInv s2 /\ byte_eqb s2 ps 47 = true.
Proof.
  unfold parse_path. intros H I Hb Hseg. pose proof (byte_eqb_lt _ _ _ Hb) as L.
  destruct (st_is_file st) eqn:Ef.
  - assert (PInv ps ps s0 x) as PI by (destruct I as (I1 & I2 & _); split; assumption).
    destruct (pinv_loop dbg ps ps s0 ltac:(lia) ltac:(lia) Hps CPathSegmentSetter st seg eq_refl
                ltac:(intros _; reflexivity) _ _ _ _ _ _ _ H PI ltac:(lia) Hseg ltac:(constructor)) as (y & Ey & Iy).
    pose proof (pinv_len ps ps s0 ltac:(lia) ltac:(lia) Hps y Iy) as Ly.
    pose proof (pinv_file_path_fixup ps ps s0 ltac:(lia) ltac:(lia) Hps st y Iy ltac:(intros _; reflexivity)) as [F1 F2].
    rewrite <- Ey in F1, F2.
    assert (byte_eqb s2 ps 47 = true) as Hb2.
    { rewrite Ey. unfold file_path_fixup. rewrite Ef. unfold byte_eqb.
      rewrite nnth_app_ge by (rewrite nlen_nfirstn; lia). rewrite nlen_nfirstn by lia. rewrite N.sub_diag. reflexivity. }
    split; [|exact Hb2]. split; [exact F1|]. split; [exact F2|]. right. exact Hb2.
  - assert (nlen (s0 ++ [47]) = ps + 1) as L1 by (rewrite nlen_app, Hps; reflexivity).
    assert (PInv ps (ps + 1) (s0 ++ [47]) x) as PI.
    { split; [apply sinv_prefix1; assumption | destruct I as (_ & I2 & _); exact I2]. }
    destruct (pinv_loop dbg ps (ps + 1) (s0 ++ [47]) ltac:(lia) ltac:(lia) L1 CPathSegmentSetter st seg eq_refl
                ltac:(intros X; congruence) _ _ _ _ _ _ _ H PI ltac:(lia) Hseg ltac:(constructor)) as (y & Ey & Iy).
    unfold file_path_fixup in Ey. rewrite Ef in Ey. subst y. destruct Iy as [Y1 Y2].
    assert (nfirstn ps s2 = s0) as E0.
    { rewrite <- (nfirstn_nfirstn ps (ps + 1) s2) by lia. rewrite Y1. rewrite <- Hps. apply nfirstn_app_exact. }
    assert (byte_eqb s2 ps 47 = true) as Hb2.
    { unfold byte_eqb. rewrite <- (nnth_nfirstn s2 (ps + 1) ps) by lia. rewrite Y1.
      rewrite nnth_app_ge by lia. rewrite Hps, N.sub_diag. reflexivity. }
    split; [|exact Hb2]. split; [exact E0|]. split; [exact Y2|]. right. exact Hb2.
Qed.

Lemma sinv_extend_loop st segs : forall x s', psm_extend_loop dbg st ps x segs = Some s' ->
  SInv x -> Forall usv_list segs -> SInv s'.
Proof.
  induction segs as [|seg rest IH]; intros x s' H I Hu; cbn [psm_extend_loop] in H.
  - inversion H; subst. exact I.
  - inversion Hu as [|? ? Hseg Hrest]; subst.
    destruct (psm_skips seg); [eapply IH; eassumption|].
    set (s1 := if (ps + 1 <? nlen x) || (nlen x =? ps) then x ++ [47] else x) in *.
    assert (SInv s1 /\ byte_eqb s1 ps 47 = true) as [I1 Hb1].
    { pose proof (sinv_len x I) as L. destruct I as (A & B & C). subst s1.
      destruct ((ps + 1 <? nlen x) || (nlen x =? ps)) eqn:E.
      - assert (byte_eqb (x ++ [47]) ps 47 = true) as Hb.
        { destruct C as [C|C].
          - rewrite <- C. apply byte_eqb_app_at.
          - unfold byte_eqb. rewrite nnth_app_lt by (apply (byte_eqb_lt _ _ _ C)). exact C. }
        split; [|exact Hb]. split; [|split; [|right; exact Hb]].
        + rewrite nfirstn_app_le by lia. exact A.
        + rewrite nskipn_app_le by lia. apply forallb_app_iff. split; [exact B | reflexivity].
      - destruct C as [C|C]; [lia|]. split; [|exact C]. split; [exact A|]. split; [exact B | right; exact C]. }
    destruct (parse_path dbg CPathSegmentSetter st true ps s1 seg) as [[[s2 hh] rem]| |] eqn:Epp;
      cbn [unpres bindo] in H; try discriminate.
    destruct (sinv_segment st s1 seg s2 hh rem Epp I1 Hb1 Hseg) as [I2 _].
    eapply IH; eassumption.
Qed.

End Session.

Lemma path_segments_session_eval dbg u ops u' : wf_b u = true ->
  byte_eqb (ser u) (scheme_end u + 1) 47 = true ->
  (path_end u = path_start u \/ byte_eqb (ser u) (path_start u) 47 = true) ->
  Forall psm_op_usv ops -> path_segments_session dbg u ops = Some (u', SOk) ->
  exists P, u' = with_path u P /\ new_path_ok P.
Proof.
  intros W Hsl Hhead Hops H.
  destruct (wf_ps_le_path_end u W) as [B5 B6]. pose proof (wf_se_lt_ps u W) as B0.
  destruct (wf_scheme_facts u W) as (Hse & Hc & Hlt).
  set (pe := path_end u) in *. set (ps := path_start u) in *.
  set (s0 := nfirstn ps (ser u)).
  assert (nlen s0 = ps) as Ls0 by (apply nlen_nfirstn; lia).
  set (x0 := nfirstn pe (ser u)).
  assert (nlen x0 = pe) as Lx0 by (apply nlen_nfirstn; exact B6).
  (* the serialization the session starts from satisfies the session invariant *)
  assert (SInv s0 ps x0) as I0.
  { pose proof W as W0. apply wf_b_iff in W0. destruct W0 as (_ & _ & (Q1 & Q2 & Q3 & Q4 & Q5)).
    change (path_end u) with pe in Q4. change (path_start u) with ps in Q4.
    split; [|split].
    - unfold x0, s0. apply nfirstn_nfirstn. exact B5.
    - unfold x0. replace pe with (ps + (pe - ps)) by lia. rewrite nskipn_nfirstn_comm. exact Q4.
    - rewrite Lx0. destruct Hhead as [E|E]; [left; exact E|].
      destruct (N.eq_dec pe ps) as [E'|E']; [left; exact E'|]. right.
      unfold byte_eqb, x0. rewrite nnth_nfirstn by lia. exact E. }
  (* open the session *)
  unfold path_segments_session, path_segments_mut in H.
  rewrite (cannot_be_a_base_eval u W) in H. cbn [bindo] in H.
  rewrite Hsl in H. cbn [negb] in H.
  unfold psm_new in H. rewrite (take_after_path_eval u W) in H. cbn [bindo] in H. fold pe x0 in H.
  destruct (u_scheme_type (set_ser u x0)) as [st|] eqn:Est; cbn [bindo] in H; [|discriminate].
  match type of H with bindo (bindo (bindo ?c _) _) _ = _ => destruct c as [[]|]; cbn [bindo] in H; [|discriminate] end.
  cbn [ser set_ser path_start] in H. fold ps in H. rewrite Lx0 in H.
  set (p0 := mkPsm (set_ser u x0) (ps + 1) (nskipn pe (ser u)) pe) in H.
  destruct (psm_run dbg p0 ops) as [p1|] eqn:Erun; cbn [bindo] in H; [|discriminate].
  (* the session keeps its bookkeeping fields and the invariant of the serialization *)
  assert (forall ops p q, psm_run dbg p ops = Some q -> Forall psm_op_usv ops ->
            psm_url p = set_ser u (ser (psm_url p)) -> after_first_slash p = ps + 1 ->
            psm_after_path p = nskipn pe (ser u) -> psm_old_pos p = pe -> SInv s0 ps (ser (psm_url p)) ->
            psm_url q = set_ser u (ser (psm_url q)) /\ psm_after_path q = nskipn pe (ser u) /\ psm_old_pos q = pe
            /\ SInv s0 ps (ser (psm_url q))) as Hrun.
  { clear - Ls0. intros ops0. induction ops0 as [|o rest IH]; intros p q Hr Hu E1 E2 E3 E4 I.
    - cbn in Hr. inversion Hr; subst. tauto.
    - cbn [psm_run] in Hr. destruct (psm_apply dbg p o) as [p'|] eqn:Eo; cbn [bindo] in Hr; [|discriminate].
      inversion Hu as [|? ? Ho Hrest]; subst.
      assert (psm_url p' = set_ser u (ser (psm_url p')) /\ after_first_slash p' = ps + 1
              /\ psm_after_path p' = nskipn pe (ser u) /\ psm_old_pos p' = pe /\ SInv s0 ps (ser (psm_url p'))) as (F1 & F2 & F3 & F4 & F5).
      { assert (forall x, SInv s0 ps x ->
                  let r := psm_with p x in
                  psm_url r = set_ser u (ser (psm_url r)) /\ after_first_slash r = ps + 1
                  /\ psm_after_path r = nskipn pe (ser u) /\ psm_old_pos r = pe /\ SInv s0 ps (ser (psm_url r))) as Hw.
        { intros x Ix. unfold psm_with. cbn [psm_url after_first_slash psm_after_path psm_old_pos ser set_ser].
          splits; try assumption. rewrite E1. reflexivity. }
        destruct o; cbn [psm_apply] in Eo.
        - inversion Eo; subst p'. unfold psm_clear. rewrite E2. apply Hw. apply sinv_clear; assumption.
        - inversion Eo; subst p'. unfold psm_pop_if_empty. rewrite E2.
          pose proof (sinv_pop_if_empty s0 ps Ls0 _ I) as I'.
          destruct (nlen (ser (psm_url p)) <=? ps + 1); [tauto|].
          destruct (ends_with_byte 47 (nskipn (ps + 1) (ser (psm_url p)))); [apply Hw; exact I' | tauto].
        - inversion Eo; subst p'. unfold psm_pop. rewrite E2.
          match goal with |- context [truncate _ (ps + 1 + ?k)] => pose proof (sinv_pop s0 ps Ls0 _ k I) as I' end.
          destruct (nlen (ser (psm_url p)) <=? ps + 1); [tauto | apply Hw; exact I'].
        - unfold psm_push, psm_extend in Eo.
          destruct (u_scheme_type (psm_url p)) as [st0|]; cbn [bindo] in Eo; [|discriminate].
          destruct (psm_extend_loop dbg st0 (path_start (psm_url p)) (ser (psm_url p)) [s]) as [s'|] eqn:El;
            cbn [bindo] in Eo; [|discriminate].
          inversion Eo; subst p'. apply Hw. rewrite E1 in El. cbn [path_start set_ser] in El. fold ps in El.
          eapply (sinv_extend_loop dbg s0 ps Ls0); [exact El | exact I | constructor; [exact Ho | constructor]].
        - unfold psm_extend in Eo.
          destruct (u_scheme_type (psm_url p)) as [st0|]; cbn [bindo] in Eo; [|discriminate].
          destruct (psm_extend_loop dbg st0 (path_start (psm_url p)) (ser (psm_url p)) ss) as [s'|] eqn:El;
            cbn [bindo] in Eo; [|discriminate].
          inversion Eo; subst p'. apply Hw. rewrite E1 in El. cbn [path_start set_ser] in El. fold ps in El.
          eapply (sinv_extend_loop dbg s0 ps Ls0); [exact El | exact I | exact Ho]. }
      eapply IH; eassumption. }
  destruct (Hrun ops p0 p1 Erun Hops eq_refl eq_refl eq_refl eq_refl I0) as (R1 & R3 & R4 & (I1 & I2 & I3)).
  (* close the session *)
  destruct (psm_close dbg p1) as [uf|] eqn:Ecl; cbn [bindo] in H; [|discriminate].
  inversion H; subst uf. clear H.
  unfold psm_close, restore_after_path in Ecl. rewrite R3, R4 in Ecl. rewrite R1 in Ecl.
  cbn [ser set_ser query_start fragment_start] in Ecl.
  set (x1 := ser (psm_url p1)) in *.
  assert (match query_start u with Some i => pe <= i | None => True end) as Gq.
  { unfold pe, path_end. destruct (query_start u); [lia | exact I]. }
  assert (match fragment_start u with Some i => pe <= i | None => True end) as Gf.
  { pose proof (wf_qf_facts u W) as QF. pose proof (qf_qf QF) as Q3. pose proof (qf_f QF) as Q2. unfold pe, path_end.
    destruct (query_start u), (fragment_start u); try exact I; lia. }
  rewrite !adjust_opt_ok in Ecl by assumption. cbn [bindo] in Ecl.
  set (P := nskipn ps x1).
  assert (x1 = s0 ++ P) as Ex1 by (unfold P; rewrite <- I1; symmetry; apply nfirstn_nskipn).
  pose proof (sinv_len s0 ps Ls0 x1 (conj I1 (conj I2 I3))) as Lx1.
  assert (new_path_ok P) as [HP1 HP2].
  { split; [exact I2|]. destruct I3 as [I3|I3].
    - left. unfold P. apply nskipn_all. lia.
    - right. unfold P. apply byte_eqb_nnth in I3. rewrite (nskipn_cons_of_nnth _ _ _ I3). eexists. reflexivity. }
  exists P. split; [|split; assumption].
  inversion Ecl. unfold with_path. fold pe ps. rewrite Ex1. rewrite nlen_app, Ls0. rewrite <- app_assoc. reflexivity.
Qed.

Lemma auth_path_head u : wf_b u = true -> has_authority_b u = true ->
  byte_eqb (ser u) (scheme_end u + 1) 47 = true
  /\ (path_end u = path_start u \/ byte_eqb (ser u) (path_start u) 47 = true).
Proof.
  intros W Ha. split.
  - pose proof Ha as Ha2. unfold has_authority_b in Ha2. apply css_bytes in Ha2. destruct Ha2 as (_ & C1 & _).
    apply byte_eqb_true_iff. exact C1.
  - destruct (wf_ps_le_path_end u W) as [B5 B6].
    pose proof W as W0. apply wf_b_iff in W0. rewrite Ha in W0. destruct W0 as (_ & (_ & PS) & (Q1 & Q2 & Q3 & Q4 & Q5)).
    destruct (N.eq_dec (path_end u) (path_start u)) as [E|E]; [left; exact E|]. right.
    assert (forall c, (c = 63 \/ c = 35) -> byte_eqb (ser u) (path_start u) c = true -> False) as Hno.
    { intros c Hcc Hb. apply byte_eqb_nnth in Hb.
      assert (nnth (nfirstn (path_end u - path_start u) (nskipn (path_start u) (ser u))) 0 = Some c) as Hn
        by (rewrite nnth_nfirstn by lia; rewrite nnth_nskipn, N.add_0_r; exact Hb).
      destruct (nfirstn (path_end u - path_start u) (nskipn (path_start u) (ser u))) as [|y r]; [discriminate|].
      cbn in Hn. inversion Hn; subst y. cbn [forallb] in Q4. apply andb_true_iff in Q4. destruct Q4 as [Q4 _].
      unfold no_qh in Q4. destruct Hcc; subst c; discriminate. }
    destruct PS as [PS|[PS|[PS|PS]]]; [lia | exact PS | exfalso; eapply (Hno 63); [left|]; tauto
                                     | exfalso; eapply (Hno 35); [right|]; tauto].
Qed.

Theorem path_segments_session_ok dbg u ops u' : wf_b u = true -> host_text_ok u -> has_authority_b u = true ->
  Forall psm_op_usv ops -> path_segments_session dbg u ops = Some (u', SOk) ->
  wf_b u' = true /\ host_text_ok u' /\ same_front dbg u u'
  /\ query dbg u' = query dbg u /\ fragment dbg u' = fragment dbg u
  /\ exists P, path u' = Some P /\ new_path_ok P.
Proof.
  intros W HT Ha Hops H. destruct (auth_path_head u W Ha) as [Hsl Hhead].
  destruct (path_segments_session_eval dbg u ops u' W Hsl Hhead Hops H) as (P & -> & HP1 & HP2).
  splits.
  - apply wp_wf; assumption.
  - apply wp_host_text_ok; assumption.
  - apply wp_front; assumption.
  - apply wp_query; assumption.
  - apply wp_fragment; assumption.
  - exists P. split; [apply wp_path; assumption | split; assumption].
Qed.
