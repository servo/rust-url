(* Proofs/C03_Views.v - the "overlapping views agree" clauses of C03 that are not in C03_views:
     authority()  vs the Position range BeforeUsername..AfterPort (and "" without authority);
     cannot_be_a_base() vs path_segments(): the exact class F-C03-4 (authority, empty path);
     port_or_known_default(); socket_addrs() for IP hosts;
     Eq / Ord / Hash / Display / String conversion / FromStr / serde, which the code defines through the
     serialization.
   What is MODELLED here and not in Model/: socket_addrs, the comparison / hashing / conversion impls and the
   serde impls are transcriptions of url/src/lib.rs:1332-1358, 2607-2684, 2768-2864, 2894-2934 written in this
   file; they are not part of the extracted model and so are not tied to the code by the correspondence run
   (the search phase of harness/src/urlprops.rs exercises std::hash, Ord and serde_json on the real crate).
   Their theorems are definitional, except the record-level ones (eq_records, the round trips), which rest
   on C02's fixpoint property. *)
From Coq Require Import String.
From RU Require Import Base.Prelude Base.Utf8 Model.AsciiSet Gen.Tables Model.PercentEncoding
  Model.HostT Model.UrlRecord Model.Parser Model.Setters Model.WF
  Proofs.ListN Proofs.C02_Reach Proofs.C03_WF Proofs.C06_List Proofs.C06_WFI Proofs.C06_Tail Proofs.C06_Steps
  Proofs.C06_Suffix Proofs.C06_FragQuery Proofs.C06_Segments Proofs.C06_Path Proofs.C06_PathNoAuth Proofs.C06_PathMore
  Proofs.C05_CompSteps.
From RU Require Import Proofs.Decimal.
Open Scope N_scope.
Open Scope list_scope.

(* 1. authority() *)
Section Authority.
Variable dbg : bool.

Theorem authority_view u : wf_b u = true ->
  authority dbg u = Some (if has_authority_b u then piece u (scheme_end u + 3) (path_start u) else [])
  /\ (has_authority_b u = true -> index_range dbg u BeforeUsername AfterPort = authority dbg u).
Proof.
  intros W. split; [apply (authority_eval dbg u W)|]. intros Ha.
  rewrite (authority_eval dbg u W), (index_range_eval dbg u W BeforeUsername AfterPort) by (cbn; lia).
  rewrite (pidx_after_port u W Ha). cbn [pidx]. rewrite Ha. reflexivity.
Qed.
End Authority.

(* 2. cannot_be_a_base() vs path_segments() *)
(* documented: "Return None for cannot-be-a-base URLs".  On a well-formed record path_segments() is None
   exactly when the path does not start with '/': cannot-be-a-base records, and - the class of F-C03-4 - records
   that are NOT cannot-be-a-base whose path is empty, which need an authority ("a://h") *)
Lemma nfirstn_head n (l : list N) x r : nfirstn n l = x :: r -> exists t, l = x :: t.
Proof.
  unfold nfirstn. destruct (N.to_nat n); [discriminate|]. destruct l as [|y t]; [discriminate|].
  cbn [firstn]. intros H. inversion H. eexists. reflexivity.
Qed.

(* a match on the literal 47 is a tree of matches on the bits of x *)
Lemma match_47 {A} (x : N) (r : list N) (f : list N -> A) (d : A) : x <> 47 ->
  (match x :: r with 47 :: r0 => f r0 | _ => d end) = d.
Proof.
  intros H. destruct x as [|q]; [reflexivity|]. do 6 (try (destruct q as [q|q|]); try reflexivity).
  destruct (H eq_refl).
Qed.

Lemma seg_none (x : N) (r : list N) : x <> 47 ->
  (match x :: r with 47 :: r0 => Some (split_on 47 r0) | _ => None end) = None.
Proof. exact (match_47 x r (fun r0 => Some (split_on 47 r0)) None). Qed.

Lemma seg_match (p : list N) :
  (match p with 47 :: r => Some (Some (split_on 47 r)) | _ => Some None end)
  = Some (match p with 47 :: r => Some (split_on 47 r) | _ => None end).
Proof.
  destruct p as [|x r]; [reflexivity|]. destruct (N.eq_dec x 47) as [->|H]; [reflexivity|].
  rewrite (seg_none x r H). exact (match_47 x r (fun r0 => Some (Some (split_on 47 r0))) (Some None) H).
Qed.

Theorem cbb_vs_segments u : wf_b u = true ->
  exists c sg p, cannot_be_a_base u = Some c /\ path_segments u = Some sg /\ path u = Some p
    /\ (c = true -> sg = None)
    /\ (c = false -> (sg = None <-> p = []))
    /\ (c = false -> p = [] -> has_authority_b u = true).
Proof.
  intros W. pose proof (cannot_be_a_base_eval u W) as Ec. pose proof (path_eval u W) as Ep.
  set (c := negb (byte_eqb (ser u) (scheme_end u + 1) 47)) in *.
  set (p := piece u (pidx u BeforePath) (pidx u AfterPath)) in *.
  exists c, (match p with 47 :: r => Some (split_on 47 r) | _ => None end), p.
  split; [exact Ec|]. split; [unfold path_segments; rewrite Ep; cbn [bindo]; apply seg_match|].
  split; [exact Ep|].
  assert (c = false -> p = [] \/ exists r, p = 47 :: r) as Hh.
  { intros Hc. apply (hier_path_head u p W); [rewrite Ec, Hc; reflexivity | exact Ep]. }
  split; [|split].
  - intros Hc. (* opaque: the path starts at scheme_end + 1, where no '/' stands *)
    unfold c in Hc. apply negb_true_iff in Hc. destruct (opaque_path_start u W Hc) as [_ Eps].
    destruct p as [|x r] eqn:Epp; [reflexivity|]. apply seg_none. intros ->.
    unfold p, piece in Epp. cbn [pidx] in Epp. destruct (nfirstn_head _ _ _ _ Epp) as (t & Es).
    unfold byte_eqb in Hc. rewrite <- Eps, <- (N.add_0_r (path_start u)), <- nnth_nskipn, Es in Hc. discriminate Hc.
  - intros Hc. destruct (Hh Hc) as [->|(r & ->)]; split; intros X; try reflexivity; discriminate.
  - intros Hc Hp. destruct (has_authority_b u) eqn:Ha; [reflexivity|exfalso].
    unfold c in Hc. apply negb_false_iff in Hc.
    assert (byte_eqb (ser u) (path_start u) 47 = true) as Hb.
    { destruct (path_layouts u W) as [Ha'|[(_ & Hs & E)|[Ho|M]]].
      - congruence.
      - rewrite E. exact Hs.
      - unfold is_opaque_b in Ho. rewrite Hc in Ho. discriminate.
      - apply (marker_heads u W M). }
    (* so the path is not empty *)
    pose proof (slash_at_path_start u W Hb) as L. pose proof (pidx_in_bounds u W AfterPath) as B.
    apply (f_equal nlen) in Hp. unfold p, piece in Hp. change (pidx u BeforePath) with (path_start u) in Hp.
    rewrite nlen_nfirstn in Hp by (rewrite nlen_nskipn; lia). change (nlen []) with 0 in Hp. lia.
Qed.

(* the class is inhabited: "a://h" (F-C03-4) *)
Example cbb_vs_segments_F_C03_4 :
  let u := mkUrl [97; 58; 47; 47; 104] 1 4 4 5 HI_Domain None 5 None None in
  wf_b u = true /\ cannot_be_a_base u = Some false /\ path_segments u = Some None /\ path u = Some [].
Proof. vm_compute. repeat split. Qed.

(* 3. port_or_known_default(), socket_addrs() *)
Theorem port_or_known_default_view u : wf_b u = true ->
  exists sch, scheme u = Some sch
    /\ port_or_known_default u = Some (match port u with Some p => Some p | None => default_port sch end).
Proof.
  intros W. exists (piece u (pidx u BeforeScheme) (pidx u AfterScheme)). split; [apply (scheme_eval u W)|].
  unfold port_or_known_default. destruct (port u); [reflexivity|]. rewrite (scheme_eval u W). reflexivity.
Qed.

(* Url::socket_addrs(default_port_number) (lib.rs:1332-1358): Err "No host name in the URL" without a host,
   Err "No port number in the URL" when port_or_known_default() and the fallback are both None; a domain goes
   to the resolver with the port; an IP host gives exactly one address *)
Inductive sock_result :=
| SockNoHost | SockNoPort
| SockResolve (domain : list N) (port : N)
| SockAddrs (addrs : list (host * N)).

Definition socket_addrs (u : url) (fallback : option N) : option sock_result :=
  h <- host_of u ;;
  match h with
  | None => Some SockNoHost
  | Some h =>
      pk <- port_or_known_default u ;;
      match (match pk with Some p => Some p | None => fallback end) with
      | None => Some SockNoPort
      | Some p => Some (match h with HDomain d => SockResolve d p | ip => SockAddrs [(ip, p)] end)
      end
  end.

Definition effective_port (u : url) (sch : list N) (fallback : option N) : option N :=
  match port u with
  | Some p => Some p
  | None => match default_port sch with Some p => Some p | None => fallback end
  end.

Lemma effective_port_eq u sch fallback :
  match (match port u with Some p => Some p | None => default_port sch end) with Some p => Some p | None => fallback end
  = effective_port u sch fallback.
Proof. unfold effective_port. destruct (port u); [reflexivity|]. destruct (default_port sch); reflexivity. Qed.

Theorem socket_addrs_view u fallback : wf_b u = true ->
  exists sch, scheme u = Some sch
    /\ (has_host u = false -> socket_addrs u fallback = Some SockNoHost)
    /\ (forall a, hosti u = HI_Ipv4 a ->
          socket_addrs u fallback = Some (match effective_port u sch fallback with
                                          | Some p => SockAddrs [(HIpv4 a, p)] | None => SockNoPort end))
    /\ (forall ps, hosti u = HI_Ipv6 ps ->
          socket_addrs u fallback = Some (match effective_port u sch fallback with
                                          | Some p => SockAddrs [(HIpv6 ps, p)] | None => SockNoPort end))
    /\ (hosti u = HI_Domain -> exists d, host_str u = Some (Some d)
          /\ socket_addrs u fallback = Some (match effective_port u sch fallback with
                                             | Some p => SockResolve d p | None => SockNoPort end)).
Proof.
  intros W. destruct (port_or_known_default_view u W) as (sch & Hs & Hp). exists sch. split; [exact Hs|].
  unfold socket_addrs. rewrite Hp. unfold host_str, host_of, has_host.
  split; [|split; [|split]].
  - intros Hh. destruct (hosti u); try discriminate. reflexivity.
  - intros a ->. cbn [bindo]. rewrite effective_port_eq. destruct (effective_port u sch fallback); reflexivity.
  - intros ps ->. cbn [bindo]. rewrite effective_port_eq. destruct (effective_port u sch fallback); reflexivity.
  - intros ->. unfold u_slice.
    rewrite slice_o_some; [|apply (wf_front_order u W) | apply (pidx_in_bounds u W AfterHost)].
    cbn [bindo]. eexists. split; [reflexivity|].
    rewrite effective_port_eq. destruct (effective_port u sch fallback); reflexivity.
Qed.

(* 4. Eq / Ord / Hash / Display / conversions / serde *)
(* lib.rs:2768-2864: every one of these impls delegates to self.serialization *)
Definition url_eq (u v : url) : bool := list_eqb (ser u) (ser v).                 (* PartialEq / Eq *)
Fixpoint bytes_cmp (a b : list N) : comparison :=                                   (* str::cmp = bytewise *)
  match a, b with
  | [], [] => Eq | [], _ :: _ => Lt | _ :: _, [] => Gt
  | x :: a', y :: b' => match x ?= y with Eq => bytes_cmp a' b' | c => c end
  end.
Definition url_cmp (u v : url) : comparison := bytes_cmp (ser u) (ser v).         (* Ord / PartialOrd *)
Definition url_hash {H : Type} (hash_str : list N -> H) (u : url) : H := hash_str (ser u).   (* Hash *)
Definition url_display (u : url) : list N := ser u.                                 (* Display, as_str, Into<String>, AsRef<str> *)

Lemma bytes_cmp_eq a : forall b, bytes_cmp a b = Eq <-> a = b.
Proof.
  induction a as [|x a IH]; intros [|y b]; cbn [bytes_cmp]; split; intros H; try reflexivity; try discriminate.
  - destruct (x ?= y) eqn:E; try discriminate. apply N.compare_eq in E. subst. f_equal. apply IH. exact H.
  - inversion H; subst. rewrite N.compare_refl. apply IH. reflexivity.
Qed.

Theorem eq_ord_hash_by_serialization u v :
  (url_eq u v = true <-> ser u = ser v)
  /\ (url_cmp u v = Eq <-> ser u = ser v)
  /\ (url_eq u v = true -> forall H (h : list N -> H), url_hash h u = url_hash h v)
  /\ url_display u = ser u.
Proof.
  split; [apply list_eqb_spec|].
  split; [apply bytes_cmp_eq|]. split; [|reflexivity].
  intros E H h. unfold url_hash. unfold url_eq in E. apply list_eqb_spec in E. rewrite E. reflexivity.
Qed.

Section Convert.
Variable dbg : bool.
Variable hp hpo : list N -> result host.
Variable hd : host -> list N.

(* FromStr / TryFrom<&str> = Url::parse; serde: Serialize writes as_str(), Deserialize parses the string;
   the String the code parses is the serialization itself: reparse of C02_Reach.v *)
Definition url_from_str (s : list N) : pres url := parse_url dbg hp hpo hd None None s.
Definition serde_serialize (u : url) : list N := ser u.
Definition serde_deserialize (bytes_ : list N) : pres url := url_from_str (utf8_lossy bytes_).

(* Eq by serialization is equality of RECORDS for fixpoints of re-parsing (C02) - for arbitrary wf_b records
   it is not: offsets are not determined by the text alone *)
Theorem eq_records u v : Fixpoint_of_reparse dbg hp hpo hd u -> Fixpoint_of_reparse dbg hp hpo hd v ->
  url_eq u v = true -> u = v.
Proof.
  unfold Fixpoint_of_reparse, reparse. intros Hu Hv E. apply list_eqb_spec in E. rewrite E in Hu. rewrite Hu in Hv.
  inversion Hv. reflexivity.
Qed.

Theorem string_round_trips u : Fixpoint_of_reparse dbg hp hpo hd u ->
  url_from_str (utf8_lossy (url_display u)) = POk u
  /\ serde_deserialize (serde_serialize u) = POk u.
Proof. intros H. split; exact H. Qed.

(* serialize_internal / deserialize_internal (lib.rs:2607-2684): the ten fields as a tuple and back; in debug
   builds deserialize_internal runs check_invariants, which re-parses the serialization and compares *)
Definition url_tuple : Type := (list N * N * N * N * N * host_internal * option N * N * option N * option N)%type.
Definition serialize_internal (u : url) : url_tuple :=
  (ser u, scheme_end u, username_end u, host_start u, host_end u, hosti u, port u, path_start u, query_start u, fragment_start u).
Definition deserialize_internal (t : url_tuple) : option url :=
  let '(s, se, ue, hs, he, hi, pt, ps, qs, fs) := t in
  let u := mkUrl s se ue hs he hi pt ps qs fs in
  if dbg then
    match reparse dbg hp hpo hd u with
    | POk v => if wf_b u && url_eqb v u then Some u else None
    | _ => None
    end
  else Some u.

Lemma url_eqb_refl03 u : url_eqb u u = true.
Proof.
  unfold url_eqb. rewrite !N.eqb_refl.
  assert (forall o, opt_eqb o o = true) as Ho by (intros [x|]; [apply N.eqb_refl | reflexivity]).
  assert (hi_eqb (hosti u) (hosti u) = true) as Hh.
  { destruct (hosti u); cbn [hi_eqb]; try reflexivity; [apply N.eqb_refl | apply list_eqb_spec; reflexivity]. }
  rewrite !Ho, Hh. assert (list_eqb (ser u) (ser u) = true) as -> by (apply list_eqb_spec; reflexivity). reflexivity.
Qed.

Theorem internal_round_trip u : wf_b u = true -> Fixpoint_of_reparse dbg hp hpo hd u ->
  deserialize_internal (serialize_internal u) = Some u.
Proof.
  intros W F. unfold deserialize_internal, serialize_internal.
  assert (mkUrl (ser u) (scheme_end u) (username_end u) (host_start u) (host_end u) (hosti u) (port u) (path_start u)
                (query_start u) (fragment_start u) = u) as E by (destruct u; reflexivity).
  rewrite E. unfold Fixpoint_of_reparse in F. rewrite F, W, url_eqb_refl03. cbn [andb]. destruct dbg; reflexivity.
Qed.

(* release builds: no check at all - the tuple is taken as it is *)
Theorem internal_round_trip_release u : dbg = false -> deserialize_internal (serialize_internal u) = Some u.
Proof. intros H. unfold deserialize_internal, serialize_internal. rewrite H. destruct u; reflexivity. Qed.

End Convert.
