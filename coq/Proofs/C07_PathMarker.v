(* Proofs/C07_PathMarker.v - the pathname setter on a URL without host: Url::set_path writes no "/." marker, so the new
   path must not start with "//" (finding F-C07-2 / F-C02-8 otherwise).  Class 3 of Known_C07 (the raw value starts with
   "//", or contains "//" and a dot) contains every value whose new list of segments starts with an empty segment
   followed by another one:
     - no dot ("." or "%2e") in the value => no dot segment: the list is the value split at '/';
     - no "//" in the value => every segment but the last is non-empty. *)
From Coq Require Import ZifyBool ZifyN.
From RU Require Import Base.Prelude Base.Utf8 Base.Utf8Facts Model.HostT Model.UrlRecord Model.Parser
  Model.KnownC01 Model.KnownC07 Spec.Whatwg
  Proofs.C02_Path Proofs.C08_Input Proofs.C01_EqEnc Proofs.C01_EqRun Proofs.C01_EqDots Proofs.C01_EqPathSpec Proofs.C01_EqPath
  Proofs.C01_KnownExact Proofs.C07_SpecPath Proofs.C07_PathText Proofs.C07_PathKnown.

(* the serializer of the Standard would write "/." in front of this path (when the host is null) *)
Definition head_empty (segs : list (list N)) : bool :=
  match segs with p0 :: _ :: _ => list_eqb p0 [] | _ => false end.

Lemma upe_nonempty B : B <> [] -> upe in_path_set B <> [].
Proof.
  destruct B as [|c r]; [contradiction|]. intros _. rewrite upe_cons.
  destruct (upe_cp_shape' c) as [E|(h & l & tl & E)]; rewrite E; discriminate.
Qed.

Lemma list_eqb_nil_false (s : list N) : s <> [] -> list_eqb s [] = false.
Proof. destruct s; [contradiction | reflexivity]. Qed.

(* no dot in the value *)
Lemma has_dot_suffix a : forall b, has_dot (a ++ b) = false -> has_dot b = false.
Proof.
  induction a as [|x a IH]; intros b H; [exact H|]. cbn [app has_dot] in H.
  apply orb_false_iff in H. destruct H as [_ H]. exact (IH b H).
Qed.

Lemma sd_cases B : is_single_dot' B = true -> In B [[46]; [37; 50; 101]; [37; 50; 69]].
Proof.
  intros H. destruct B as [|a [|b [|c [|d r]]]]; cbn [is_single_dot'] in H; try discriminate H; unfold is_pct2e in H.
  - assert (a = 46) as -> by lia. cbn; tauto.
  - assert (a = 37 /\ b = 50 /\ (c = 101 \/ c = 69)) as K by lia.
    destruct K as (-> & -> & [->| ->]); cbn; tauto.
Qed.

Lemma single_dot_has B y : is_single_dot B = true -> has_dot (B ++ y) = true.
Proof.
  rewrite is_single_dot_eq. intros H. apply sd_cases in H. cbn [In] in H.
  repeat (destruct H as [<-|H]; [reflexivity|]). destruct H.
Qed.

Lemma double_dot_has_dot B y : is_double_dot B = true -> has_dot (B ++ y) = true.
Proof.
  rewrite is_double_dot_eq. intros H. apply dd_cases in H. cbn [In] in H.
  repeat (destruct H as [<-|H]; [reflexivity|]). destruct H.
Qed.

Lemma fin_nodot P Braw y sep : has_dot (Braw ++ y) = false -> fin P (upe in_path_set Braw) sep = P ++ [upe in_path_set Braw].
Proof.
  intros H. unfold fin. rewrite double_dot_enc, single_dot_enc.
  destruct (is_double_dot Braw) eqn:E2; [rewrite (double_dot_has_dot Braw y E2) in H; discriminate H|].
  destruct (is_single_dot Braw) eqn:E1; [rewrite (single_dot_has Braw y E1) in H; discriminate H|].
  reflexivity.
Qed.

Lemma spathO_nodot x : forall Braw P, has_dot (Braw ++ x) = false ->
  exists B' L, spathO false x P (upe in_path_set Braw) = P ++ upe in_path_set (Braw ++ B') :: L.
Proof.
  induction x as [|c r IH]; intros Braw P H; cbn [spathO].
  - exists [], []. rewrite app_nil_r. exact (fin_nodot P Braw [] false H).
  - rewrite sepc_false. destruct (c =? 47).
    + rewrite (fin_nodot P Braw (c :: r) true H).
      change (@nil N) with (upe in_path_set []) at 1.
      destruct (IH [] (P ++ [upe in_path_set Braw])) as (B' & L & E).
      { cbn [app]. apply (has_dot_suffix (Braw ++ [c])). rewrite <- app_assoc. exact H. }
      rewrite E. exists [], (upe in_path_set ([] ++ B') :: L). rewrite app_nil_r, <- app_assoc. reflexivity.
    + rewrite upe_snoc. destruct (IH (Braw ++ [c]) P) as (B' & L & E); [rewrite <- app_assoc; exact H|].
      rewrite E. exists (c :: B'), L. rewrite <- app_assoc. reflexivity.
Qed.

(* no "//" in the value *)
Definition all_ne (P : list (list N)) : bool := forallb (fun s => negb (list_eqb s [])) P.

Lemma all_ne_removelast P : all_ne P = true -> all_ne (removelast P) = true.
Proof.
  unfold all_ne. intros H. rewrite forallb_forall in *. intros x Hx. apply H.
  destruct P as [|p0 P]; [destruct Hx|].
  assert (p0 :: P <> []) as Hne by discriminate.
  rewrite (app_removelast_last [] Hne). apply in_or_app. left. exact Hx.
Qed.

Lemma cds_tail c r : contains_double_slash (c :: r) = false -> contains_double_slash r = false.
Proof. destruct r as [|b r']; [reflexivity|]. cbn [contains_double_slash]. intros H. apply orb_false_iff in H. tauto. Qed.

Lemma cds_slash_next r : contains_double_slash (47 :: r) = false -> starts_with_byte 47 r = false.
Proof.
  destruct r as [|b r']; [reflexivity|]. cbn [contains_double_slash starts_with_byte]. intros H.
  apply orb_false_iff in H. destruct H as [H _]. change (47 =? 47) with true in H. exact H.
Qed.

Lemma spathO_nods x : forall Braw P, all_ne P = true -> (Braw = [] -> starts_with_byte 47 x = false) ->
  contains_double_slash x = false ->
  exists P' last, spathO false x P (upe in_path_set Braw) = P' ++ [last] /\ all_ne P' = true.
Proof.
  induction x as [|c r IH]; intros Braw P HP Hb Hc; cbn [spathO].
  - unfold fin. destruct (is_double_dot_segment (upe in_path_set Braw)).
    + exists (removelast P), []. split; [reflexivity | exact (all_ne_removelast P HP)].
    + destruct (is_single_dot_segment (upe in_path_set Braw)); eexists; eexists; (split; [reflexivity | exact HP]).
  - rewrite sepc_false. destruct (c =? 47) eqn:E47.
    + apply N.eqb_eq in E47. subst c.
      assert (Braw <> []) as Hne by (intros E; specialize (Hb E); cbn in Hb; discriminate Hb).
      change (@nil N) with (upe in_path_set []) at 1.
      apply IH; [| intros _; exact (cds_slash_next r Hc) | exact (cds_tail 47 r Hc)].
      unfold fin. destruct (is_double_dot_segment (upe in_path_set Braw)); [exact (all_ne_removelast P HP)|].
      destruct (is_single_dot_segment (upe in_path_set Braw)); [exact HP|].
      unfold all_ne in *. rewrite forallb_app, HP. cbn [forallb andb].
      rewrite (list_eqb_nil_false _ (upe_nonempty Braw Hne)). reflexivity.
    + rewrite upe_snoc. apply IH; [exact HP | | exact (cds_tail c r Hc)].
      intros E. destruct Braw; discriminate E.
Qed.

Lemma head_empty_all_ne P' last : all_ne P' = true -> head_empty (P' ++ [last]) = false.
Proof.
  destruct P' as [|p0 [|p1 P'']]; intros H; [reflexivity | |]; cbn [app head_empty];
    cbn [all_ne forallb] in H; apply andb_true_iff in H; destruct H as [H _]; apply negb_true_iff in H; exact H.
Qed.

(* class 3 of Known_C07 *)
Theorem no_marker x : starts_with_byte 47 x = false -> contains_double_slash x && has_dot x = false ->
  head_empty (spathO false x [] []) = false.
Proof.
  intros Hs H. apply andb_false_iff in H. destruct H as [H|H].
  - change (@nil N) with (upe in_path_set []) at 1.
    destruct (spathO_nods x [] [] eq_refl (fun _ => Hs) H) as (P' & last & E & HP). rewrite E.
    exact (head_empty_all_ne P' last HP).
  - destruct x as [|c r]; [vm_compute; reflexivity|].
    cbn [spathO]. rewrite sepc_false. cbn [starts_with_byte] in Hs. rewrite Hs.
    change (@nil N) with (upe in_path_set []) at 1. rewrite upe_snoc.
    destruct (spathO_nodot r ([] ++ [c]) [] H) as (B' & L & E). rewrite E. cbn [app head_empty].
    destruct L; [reflexivity|]. apply list_eqb_nil_false. apply upe_nonempty. discriminate.
Qed.

(* the value is led by one '/' *)
Theorem no_marker_tail r : starts_with s_ss (47 :: r) = false -> contains_double_slash (47 :: r) && has_dot (47 :: r) = false ->
  head_empty (spathO false r [] []) = false.
Proof.
  intros Hs H. apply no_marker.
  - destruct r as [|b r']; [reflexivity|]. cbn [starts_with_byte]. unfold s_ss in Hs. cbn [starts_with] in Hs.
    change (47 =? 47) with true in Hs. cbn [andb] in Hs. rewrite andb_true_r in Hs. rewrite N.eqb_sym. exact Hs.
  - apply andb_false_iff in H. apply andb_false_iff. destruct H as [H|H].
    + left. exact (cds_tail 47 r H).
    + right. exact (has_dot_suffix [47] r H).
Qed.
