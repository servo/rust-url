(* Proofs/C07_HostOn.v - the host hypothesis restricted to the strings the setters hand to the host functions.
   host_fns_ok (Proofs/C07_EqHostname.v) asks the two sides' host functions to agree on EVERY string; the REAL host
   functions agree on scalar-value strings, non-empty for Host::parse (Proofs/C07_HostReal.v), and not
   on the empty string.  One assignment through hostname / host queries the host functions on ONE string: the buffer of
   the host scan of the value (hscan), a sub-string of the value, never empty for Host::parse.  So the one-step
   theorems hold under host_fns_ok_on (agreement on scalar-value strings, non-empty for Host::parse):
   the functions are replaced by wrappers that answer like them on that buffer and fail elsewhere on both sides
   (wrap_ok: the wrappers satisfy host_fns_ok), and neither side sees the difference (q_set_hostname_ext,
   q_set_host_ext, spec_hostname_ext, spec_host_ext).  Instance: the real host functions relative to IdnaOut. *)
From Coq Require Import Bool.
From RU Require Import Base.Prelude Base.Utf8 Model.AsciiSet Gen.Tables Model.PercentEncoding
  Model.HostT Model.Host Model.UrlRecord Model.Parser Model.Setters Model.WF Model.KnownC01 Model.KnownC07
  Spec.Whatwg Spec.WhatwgHost Spec.WhatwgHostParse
  Proofs.ListN Proofs.C02_Parts Proofs.C03_WF Proofs.C06_Steps Proofs.C06_FragQuery Proofs.C06_Host Proofs.C08_Input
  Proofs.C01_Tables Proofs.C01_EqRef Proofs.C01_EqAuthSpec Proofs.C09_Host Proofs.C09_RealC01
  Proofs.C07_Defs Proofs.C07_Histories Proofs.C07_Corr Proofs.C07_SpecRun Proofs.C07_SpecProto Proofs.C07_EqProto Proofs.C07_EqSix
  Proofs.C07_SpecHost Proofs.C07_EqHostLayout Proofs.C07_EqHostname Proofs.C07_EqSeven Proofs.C07_EqAuthParse
  Proofs.C07_SpecHostPort Proofs.C07_EqParseAll Proofs.C07_EqNine Proofs.C07_HostReal
  Proofs.C07_EqPathname.

Definition host_fns_ok_on (hp ho : list N -> result host) (hd : host -> list N)
           (shp : bool -> list N -> option spec_host) (shs : spec_host -> list N) : Prop :=
  (forall s, usv_list s -> s <> [] -> host_fn_ok_at hp hd shp shs false s)
  /\ (forall s, usv_list s -> host_fn_ok_at ho hd shp shs true s).

Lemma host_fns_ok_on_of_all hp ho hd shp shs : host_fns_ok hp ho hd shp shs -> host_fns_ok_on hp ho hd shp shs.
Proof. intros [H0 H1]. split; [intros s _ _; exact (H0 s) | intros s _; exact (H1 s)]. Qed.

Section Wrap.
Variable hp ho : list N -> result host.
Variable hd : host -> list N.
Variable shp : bool -> list N -> option spec_host.
Variable shs : spec_host -> list N.
Variable buf : list N.

Definition hpW (s : list N) : result host := if list_eqb s buf && negb (is_nil s) then hp s else Err EmptyHost.
Definition hoW (s : list N) : result host := if list_eqb s buf then ho s else Err EmptyHost.
Definition shpW (o : bool) (s : list N) : option spec_host :=
  if list_eqb s buf && (o || negb (is_nil s)) then shp o s else None.

Lemma wrap_ok : host_fns_ok_on hp ho hd shp shs -> usv_list buf -> host_fns_ok hpW hoW hd shpW shs.
Proof.
  intros [H0 H1] Hu. split; intros s.
  - unfold hpW, host_parsing, shpW. cbn [orb].
    destruct (list_eqb s buf && negb (is_nil s)) eqn:E; [|exact I].
    apply andb_true_iff in E. destruct E as [E1 E2]. apply list_eqb_spec in E1. subst s.
    assert (buf <> []) as Hne by (intros X; rewrite X in E2; discriminate E2).
    exact (H0 buf Hu Hne).
  - unfold hoW, host_parsing, shpW. cbn [orb]. rewrite andb_true_r.
    destruct (list_eqb s buf) eqn:E; [|exact I].
    apply list_eqb_spec in E. subst s. exact (H1 buf Hu).
Qed.

Lemma hpW_at : buf <> [] -> hpW buf = hp buf.
Proof. intros H. unfold hpW. rewrite list_eqb_refl. destruct buf; [contradiction | reflexivity]. Qed.
Lemma hoW_at : hoW buf = ho buf.
Proof. unfold hoW. rewrite list_eqb_refl. reflexivity. Qed.
Lemma shpW_at sp : sp && is_nil buf = false -> shpW (negb sp) buf = shp (negb sp) buf.
Proof.
  intros H. unfold shpW. rewrite list_eqb_refl. cbn [andb].
  destruct sp; cbn [negb orb andb] in *; [rewrite H|]; reflexivity.
Qed.
End Wrap.

(* the model side sees the host functions on the scanned buffer only *)
Lemma parse_host_ext hp ho hp' ho' st l : st_is_file st = false ->
  (st_is_special st = true -> fst (host_scan (st_is_special st) false [] l) <> [] ->
     hp (fst (host_scan (st_is_special st) false [] l)) = hp' (fst (host_scan (st_is_special st) false [] l))) ->
  (st_is_special st = false ->
     ho (fst (host_scan (st_is_special st) false [] l)) = ho' (fst (host_scan (st_is_special st) false [] l))) ->
  parse_host hp ho st l = parse_host hp' ho' st l.
Proof.
  intros Hf H1 H2. unfold parse_host. rewrite Hf.
  destruct (host_scan (st_is_special st) false [] l) as [h rem]. cbn [fst] in *.
  destruct st; [discriminate Hf | |]; cbn [st_is_special scheme_type_eqb negb andb] in *.
  - destruct h as [|c r]; [reflexivity|]. rewrite (H1 eq_refl) by discriminate. reflexivity.
  - rewrite (H2 eq_refl). reflexivity.
Qed.

Section ModelExt.
Variable dbg : bool.
Variable hp ho hp' ho' : list N -> result host.
Variable hd : host -> list N.

Lemma q_set_hostname_ext u v sc : scheme u = Some sc ->
  (cannot_be_a_base u = Some false ->
     parse_host hp ho (scheme_type_of sc) v = parse_host hp' ho' (scheme_type_of sc) v) ->
  q_set_hostname dbg hp ho hd u v = q_set_hostname dbg hp' ho' hd u v.
Proof.
  intros Es H. unfold q_set_hostname. destruct (cannot_be_a_base u) as [[|]|]; try reflexivity. cbn [bindo].
  rewrite Es. cbn [bindo]. unfold input_new_no_trim. rewrite (H eq_refl). reflexivity.
Qed.

Lemma q_set_host_ext u v sc : scheme u = Some sc ->
  (cannot_be_a_base u = Some false ->
     parse_host hp ho (scheme_type_of sc) v = parse_host hp' ho' (scheme_type_of sc) v) ->
  q_set_host dbg hp ho hd u v = q_set_host dbg hp' ho' hd u v.
Proof.
  intros Es H. unfold q_set_host. destruct (cannot_be_a_base u) as [[|]|]; try reflexivity. cbn [bindo].
  rewrite Es. cbn [bindo]. unfold input_new_no_trim. rewrite (H eq_refl). reflexivity.
Qed.
End ModelExt.

(* so does the Standard's side *)
Lemma host_parsing_ext shp shp' o s : shp o s = shp' o s -> host_parsing shp o s = host_parsing shp' o s.
Proof. intros H. unfold host_parsing. rewrite H. reflexivity. Qed.

Lemma hostname_decide_ext shp shp' su r :
  (is_special su && is_nil (fst r) = false -> shp (negb (is_special su)) (fst r) = shp' (negb (is_special su)) (fst r)) ->
  hostname_decide shp su r = hostname_decide shp' su r.
Proof.
  intros H. unfold hostname_decide. destruct r as [buf [|]]; [reflexivity|]. cbn [fst] in H.
  destruct (is_special su && is_nil buf) eqn:E; [reflexivity|].
  rewrite (host_parsing_ext shp shp' _ _ (H eq_refl)). reflexivity.
Qed.

Lemma spec_hostname_ext shp shp' su v :
  (has_opaque_path su = false -> list_eqb (su_scheme su) str_file = false
     /\ let buf := fst (hscan (is_special su) false [] (notnl v)) in
        (is_special su && is_nil buf = false -> shp (negb (is_special su)) buf = shp' (negb (is_special su)) buf)) ->
  spec_set shp SetHostname su v = spec_set shp' SetHostname su v.
Proof.
  intros H. destruct (has_opaque_path su) eqn:Hop; [cbn [spec_set]; rewrite Hop; reflexivity|].
  destruct (H eq_refl) as [Hf Hb]. rewrite !(spec_hostname_closed _ su v Hf), Hop.
  rewrite (hostname_decide_ext shp shp' su _ Hb). reflexivity.
Qed.

Lemma spec_host_ext shp shp' su v :
  (has_opaque_path su = false -> list_eqb (su_scheme su) str_file = false
     /\ let buf := fst (hscan (is_special su) false [] (notnl v)) in
        (is_special su && is_nil buf = false -> shp (negb (is_special su)) buf = shp' (negb (is_special su)) buf)) ->
  spec_set shp SetHost su v = spec_set shp' SetHost su v.
Proof.
  intros H. destruct (has_opaque_path su) eqn:Hop; [cbn [spec_set]; rewrite Hop; reflexivity|].
  destruct (H eq_refl) as [Hf Hb]. rewrite !(spec_host_closed _ su v Hf), Hop. unfold host_decide. cbv zeta in *.
  destruct (snd (hscan (is_special su) false [] (notnl v))).
  - unfold host_port_decide. destruct (is_nil (fst (hscan (is_special su) false [] (notnl v)))) eqn:En; [reflexivity|].
    rewrite (host_parsing_ext shp shp' _ _ (Hb (andb_false_r _))). reflexivity.
  - rewrite (hostname_decide_ext shp shp' su _ Hb). reflexivity.
Qed.

(* hostname and host under the restricted hypothesis *)
Lemma hscan_usv sp t : forall br buf, usv_list buf -> usv_list t -> usv_list (fst (hscan sp br buf t)).
Proof.
  induction t as [|c r IH]; intros br buf Hb Ht; [exact Hb|]. cbn [hscan].
  apply usv_cons in Ht. destruct Ht as [Hc Hr].
  destruct ((c =? 58) && negb br); [exact Hb|]. destruct (h_end sp c); [exact Hb|].
  apply IH; [|exact Hr]. apply usv_app. split; [exact Hb|]. apply usv_cons. split; [exact Hc | constructor].
Qed.

Section On.
Variable dbg : bool.
Variable hp ho : list N -> result host.
Variable hd : host -> list N.
Variable shp : bool -> list N -> option spec_host.
Variable shs : spec_host -> list N.
Hypothesis HO : host_fns_ok_on hp ho hd shp shs.

(* what both setters need: the two sides, with the wrappers for the buffer of this value, are the two sides *)
Lemma wrappers_unseen u su v : corrS dbg shs u su -> usv_list v ->
  (cannot_be_a_base u = Some false -> list_eqb (su_scheme su) s_file = false) ->
  let buf := fst (hscan (is_special su) false [] (ntnl v)) in
  host_fns_ok (hpW hp buf) (hoW ho buf) hd (shpW shp buf) shs
  /\ (cannot_be_a_base u = Some false ->
        parse_host hp ho (scheme_type_of (su_scheme su)) v
        = parse_host (hpW hp buf) (hoW ho buf) (scheme_type_of (su_scheme su)) v)
  /\ (has_opaque_path su = false -> list_eqb (su_scheme su) str_file = false
        /\ let b := fst (hscan (is_special su) false [] (notnl v)) in
           (is_special su && is_nil b = false -> shp (negb (is_special su)) b = shpW shp buf (negb (is_special su)) b)).
Proof.
  intros [C S] Hv Hnf buf.
  assert (usv_list buf) as Hub by (apply hscan_usv; [constructor | apply usv_ntnl; exact Hv]).
  pose proof (co_wf _ _ _ _ C) as W.
  pose proof (cannot_be_a_base_eval u W) as Ecb.
  change (negb (byte_eqb (ser u) (scheme_end u + 1) 47)) with (is_opaque_b u) in Ecb.
  rewrite (co_opaque _ _ _ _ C) in Ecb.
  pose proof (special_schemes_are_the_standards (su_scheme su)) as Esp. fold (is_special su) in Esp.
  split; [exact (wrap_ok hp ho hd shp shs buf HO Hub)|]. split.
  - intros Hc. pose proof (Hnf Hc) as Ef.
    assert (st_is_file (scheme_type_of (su_scheme su)) = false) as Enf by (rewrite file_test_same; exact Ef).
    apply parse_host_ext; [exact Enf | |]; rewrite Esp, (host_scan_fst (is_special su) v false []); cbn [rev]; fold buf.
    + intros _ Hne. symmetry. exact (hpW_at hp buf Hne).
    + intros _. symmetry. exact (hoW_at ho buf).
  - intros Hop. rewrite Hop in Ecb. split; [exact (Hnf Ecb)|]. cbv zeta. change (notnl v) with (ntnl v). fold buf.
    intros Hb. symmetry. exact (shpW_at shp buf (is_special su) Hb).
Qed.

Lemma not_file_of_known u su s v : corr dbg shs u su -> (s = QHostname \/ s = QHost) -> known_c07 u s v = 0 ->
  cannot_be_a_base u = Some false -> list_eqb (su_scheme su) s_file = false.
Proof.
  intros C Hs Hk Ecb. unfold known_c07, u_cbb, u_scheme_or_empty in Hk. rewrite Ecb, (co_scheme _ _ _ _ C) in Hk.
  destruct (list_eqb (su_scheme su) s_file); [|reflexivity]. destruct Hs as [-> | ->]; discriminate Hk.
Qed.

Theorem hostname_step_on u su v : corrS dbg shs u su -> usv_list v -> known_c07 u QHostname v = 0 ->
  exists u' su', model_set dbg hp ho hd QHostname u v = Some u' /\ spec_step shp QHostname su v = Some su'
    /\ corrS dbg shs u' su'.
Proof.
  intros CS Hv Hk.
  destruct (wrappers_unseen u su v CS Hv (not_file_of_known u su QHostname v (proj1 CS) (or_introl eq_refl) Hk)) as (HF & HM & HS).
  destruct (seven_step dbg _ _ hd _ shs HF u su QHostname v CS eq_refl Hv Hk) as (u' & su' & A & B & C').
  exists u', su'. split; [|split; [|exact C']].
  - rewrite <- A. cbn [model_set]. f_equal.
    exact (q_set_hostname_ext dbg _ _ _ _ hd u v _ (co_scheme _ _ _ _ (proj1 CS)) HM).
  - rewrite <- B. unfold spec_step. cbn [setter_of_q]. rewrite (spec_hostname_ext shp _ su v HS). reflexivity.
Qed.

Theorem host_step_on u su v : corrS dbg shs u su -> usv_list v -> known_c07 u QHost v = 0 ->
  exists u' su', model_set dbg hp ho hd QHost u v = Some u' /\ spec_step shp QHost su v = Some su'
    /\ corrS dbg shs u' su'.
Proof.
  intros CS Hv Hk.
  destruct (wrappers_unseen u su v CS Hv (not_file_of_known u su QHost v (proj1 CS) (or_intror eq_refl) Hk)) as (HF & HM & HS).
  destruct (host_step dbg _ _ hd _ shs HF u su v CS Hv Hk) as (u' & su' & A & B & C').
  exists u', su'. split; [|split; [|exact C']].
  - rewrite <- A. cbn [model_set]. f_equal.
    exact (q_set_host_ext dbg _ _ _ _ hd u v _ (co_scheme _ _ _ _ (proj1 CS)) HM).
  - rewrite <- B. unfold spec_step. cbn [setter_of_q]. rewrite (spec_host_ext shp _ su v HS). reflexivity.
Qed.

(* the nine setters other than href: one step, histories *)
Definition no_href (s : qsetter) : bool := match s with QHref => false | _ => true end.

Fixpoint no_href_ops (ops : list (qsetter * list N)) : Prop :=
  match ops with
  | [] => True
  | (s, v) :: r => no_href s = true /\ usv_list v /\ no_href_ops r
  end.

Theorem no_href_step u su s v : corrS dbg shs u su -> no_href s = true -> usv_list v -> known_c07 u s v = 0 ->
  exists u' su', model_set dbg hp ho hd s u v = Some u' /\ spec_step shp s su v = Some su' /\ corrS dbg shs u' su'.
Proof.
  intros CS Hs Hv Hk. destruct (six s) eqn:H6; [exact (six_step dbg hp ho hd shp shs u su s v CS H6 Hv Hk)|].
  destruct s; try discriminate Hs; try discriminate H6.
  - exact (host_step_on u su v CS Hv Hk).
  - exact (hostname_step_on u su v CS Hv Hk).
  - exact (pathname_step dbg hp ho hd shp shs u su v CS Hv Hk).
Qed.

Theorem no_href_histories ops u su : corrS dbg shs u su -> no_href_ops ops -> outside_known dbg hp ho hd u ops ->
  forall n, exists u' su',
    model_run dbg hp ho hd u (firstn n ops) = Some u'
    /\ spec_run shp su (firstn n ops) = Some su'
    /\ corrS dbg shs u' su'
    /\ model_api dbg u' = Some (spec_api_list shs su').
Proof.
  exact (usv_histories dbg hp ho hd shp shs (corrS dbg shs) (corrS_api dbg shs)
           (fun s _ => no_href s = true) no_href_ops (fun _ _ _ H => H) no_href_step ops u su).
Qed.

End On.

(* the real host functions, relative to IdnaOut *)
Theorem real_host_fns_ok_on_out idna : IdnaOut idna ->
  host_fns_ok_on (host_parse idna) host_parse_opaque host_display (spec_host_parser idna) spec_host_serializer.
Proof.
  intros OUT. split; [intros s Hu Hne; exact (host_fn_real_special_out idna OUT s Hu Hne) | intros s Hu; exact (host_fn_real_opaque_out idna OUT s Hu)].
Qed.
