(* Proofs/C15_Url.v - the URL-editing clause of C15: Url::query_pairs_mut sessions (Model/QueryPairs.v)
   on a well-formed Url, via the generic for_suffix theorem of Proofs/C15_Ser.v. *)
From RU Require Import Base.Prelude
  Model.FormUrlencoded Proofs.C15_Parse Proofs.C15_Bser Proofs.C15_Ser.
From RU Require Import Model.UrlRecord Model.Setters Model.WF Model.QueryPairs
  Proofs.ListN Proofs.C03_WF.

(* nlen, pre, suf of C15_Ser.v are nlen, nfirstn, nskipn of Model/UrlRecord.v *)
Lemma nlen_eq l : C15_Ser.nlen l = nlen l.
Proof. reflexivity. Qed.
Lemma pre_eq n s : pre n s = nfirstn n s.
Proof. reflexivity. Qed.
Lemma suf_eq n s : suf n s = nskipn n s.
Proof. reflexivity. Qed.

Lemma nfirstn_app_le n a b : n <= nlen a -> nfirstn n (a ++ b) = nfirstn n a.
Proof.
  unfold nlen, nfirstn. intros H. rewrite firstn_app.
  replace (N.to_nat n - length a)%nat with O by lia. cbn [firstn]. apply app_nil_r.
Qed.
Lemma nskipn_app_le n a b : n <= nlen a -> nskipn n (a ++ b) = nskipn n a ++ b.
Proof.
  unfold nlen, nskipn. intros H. rewrite skipn_app.
  replace (N.to_nat n - length a)%nat with O by lia. reflexivity.
Qed.
Lemma nnth_app_lt a b i : i < nlen a -> nnth (a ++ b) i = nnth a i.
Proof. unfold nlen, nnth. intros H. apply nth_error_app1. lia. Qed.
Lemma nnth_app_at a x b : nnth (a ++ x :: b) (nlen a) = Some x.
Proof.
  unfold nlen, nnth. rewrite Nat2N.id, nth_error_app2 by lia.
  replace (length a - length a)%nat with O by lia. reflexivity.
Qed.
Lemma nth_error_firstn_lt {A} (l : list A) : forall n i, (i < n)%nat -> nth_error (firstn n l) i = nth_error l i.
Proof.
  induction l as [|x l IH]; intros n i H.
  - rewrite firstn_nil. reflexivity.
  - destruct n as [|n]; [lia|]. destruct i as [|i]; [reflexivity|]. cbn [firstn nth_error]. apply IH. lia.
Qed.
Lemma nnth_nfirstn n l i : i < n -> nnth (nfirstn n l) i = nnth l i.
Proof. unfold nnth, nfirstn. intros H. apply nth_error_firstn_lt. lia. Qed.
Lemma nnth_prefix n a b i : nfirstn n a = nfirstn n b -> i < n -> nnth a i = nnth b i.
Proof. intros H Hi. rewrite <- (nnth_nfirstn n a i Hi), <- (nnth_nfirstn n b i Hi), H. reflexivity. Qed.
Lemma nfirstn_nfirstn m n l : m <= n -> nfirstn m (nfirstn n l) = nfirstn m l.
Proof. unfold nfirstn. intros H. rewrite firstn_firstn. f_equal. lia. Qed.
Lemma nfirstn_prefix m n a b : nfirstn n a = nfirstn n b -> m <= n -> nfirstn m a = nfirstn m b.
Proof. intros H Hm. rewrite <- (nfirstn_nfirstn m n a Hm), <- (nfirstn_nfirstn m n b Hm), H. reflexivity. Qed.
Lemma piece_of_prefix l x y : x <= y -> nfirstn (y - x) (nskipn x l) = nskipn x (nfirstn y l).
Proof.
  unfold nfirstn, nskipn. intros H. rewrite firstn_skipn_comm. f_equal. f_equal. lia.
Qed.
Lemma piece_prefix n a b x y : nfirstn n a = nfirstn n b -> x <= y -> y <= n ->
  nfirstn (y - x) (nskipn x a) = nfirstn (y - x) (nskipn x b).
Proof.
  intros H Hxy Hyn. rewrite !piece_of_prefix by exact Hxy. rewrite (nfirstn_prefix y n a b H Hyn). reflexivity.
Qed.
Lemma nnth_nskipn l a k : nnth (nskipn a l) k = nnth l (a + k).
Proof.
  unfold nnth, nskipn. replace (N.to_nat (a + k)) with (N.to_nat a + N.to_nat k)%nat by lia.
  generalize (N.to_nat a) (N.to_nat k). clear. intros n k. revert l.
  induction n as [|n IH]; intros l; [reflexivity|].
  destruct l as [|x l]; [destruct k; reflexivity|]. cbn [skipn Nat.add nth_error]. apply IH.
Qed.
Lemma Forall_nfirstn {P : N -> Prop} n l : Forall P l -> Forall P (nfirstn n l).
Proof. intros H. rewrite <- (nfirstn_nskipn n l) in H. apply Forall_app in H. tauto. Qed.
Lemma Forall_nskipn {P : N -> Prop} n l : Forall P l -> Forall P (nskipn n l).
Proof. intros H. rewrite <- (nfirstn_nskipn n l) in H. apply Forall_app in H. tauto. Qed.

(* in an ASCII string every index up to the length is a char boundary *)
Lemma ascii_boundary s i : Forall (fun b => b < 128) s -> i <= nlen s -> is_char_boundary s i = true.
Proof.
  intros Ha Hi. unfold is_char_boundary. destruct (i =? 0); [reflexivity|].
  destruct (nth_error s (N.to_nat i)) as [b|] eqn:E.
  - apply nth_error_In in E. rewrite Forall_forall in Ha. specialize (Ha b E). lia.
  - apply nth_error_None in E. unfold nlen in Hi. lia.
Qed.

(* starts_with "://" looks at three bytes *)
Lemma starts_with_css l : starts_with s_css l = true <-> (nnth l 0 = Some 58 /\ nnth l 1 = Some 47 /\ nnth l 2 = Some 47).
Proof.
  split.
  - intros H. apply starts_with_split in H. rewrite H. repeat split; reflexivity.
  - destruct l as [|a [|b [|c r]]]; intros (H1 & H2 & H3); try discriminate.
    inversion H1; inversion H2; inversion H3; subst. reflexivity.
Qed.
Lemma starts_with_ss l : starts_with s_ss l = true <-> (nnth l 0 = Some 47 /\ nnth l 1 = Some 47).
Proof.
  split.
  - intros H. apply starts_with_split in H. rewrite H. split; reflexivity.
  - destruct l as [|a [|b r]]; intros (H1 & H2); try discriminate.
    inversion H1; inversion H2; subst. reflexivity.
Qed.

(* the UrlQuery target of Model/QueryPairs.v is a lens: the three hypotheses of C15_Ser.session_ok *)
Lemma uq_get_set t s : uq_get (uq_set t s) = s.
Proof. destruct t as [u f]. reflexivity. Qed.
Lemma uq_set_set t a b : uq_set (uq_set t a) b = uq_set t b.
Proof. destruct t as [u f]. reflexivity. Qed.
Lemma uq_set_get t : uq_set t (uq_get t) = t.
Proof. destruct t as [[s a b c d e g h i j] f]. reflexivity. Qed.

(* end of the path = position of '?', or of '#', or the end *)
Definition path_end (u : url) : N :=
  match query_start u, fragment_start u with
  | Some q, _ => q | None, Some f => f | None, None => nlen (ser u) end.
(* end of the query (of the path if there is none) = position of '#', or the end *)
Definition body_end (u : url) : N :=
  match fragment_start u with Some f => f | None => nlen (ser u) end.
(* the query text ("" when there is no query) *)
Definition old_query (u : url) : list N :=
  match query_start u with
  | Some q => nfirstn (body_end u - (q + 1)) (nskipn (q + 1) (ser u))
  | None => []
  end.
(* '#' and the fragment text *)
Definition frag_tail (u : url) : list N :=
  match fragment_start u with Some f => 35 :: nskipn (f + 1) (ser u) | None => [] end.
(* the serialization that the Serializer edits: fragment detached, '?' present *)
Definition body2 (u : url) : list N :=
  match query_start u with
  | Some _ => nfirstn (body_end u) (ser u)
  | None => nfirstn (body_end u) (ser u) ++ [63]
  end.

Definition edited (u : url) (str' : list N) : url :=
  mkUrl (str' ++ frag_tail u) (scheme_end u) (username_end u) (host_start u) (host_end u) (hosti u) (port u)
        (path_start u) (Some (path_end u))
        (match fragment_start u with Some _ => Some (nlen str') | None => None end).

Section Session.
Variable dbg : bool.
Variable u : url.
Hypothesis Hwf : wf_b u = true.

Lemma ends_facts : path_start u <= path_end u /\ path_end u <= body_end u /\ body_end u <= nlen (ser u)
  /\ (match query_start u with Some q => q < body_end u /\ nnth (ser u) q = Some 63 | None => path_end u = body_end u end)
  /\ (match fragment_start u with Some f => f < nlen (ser u) /\ nnth (ser u) f = Some 35 | None => True end).
Proof.
  pose proof (wf_qf_facts u Hwf) as QF. pose proof (path_start_le_len u Hwf) as Hps.
  pose proof (qf_q QF) as Q1. pose proof (qf_f QF) as Q2. pose proof (qf_qf QF) as Q3.
  unfold path_end, body_end.
  destruct (query_start u) as [q|]; destruct (fragment_start u) as [f|];
    repeat match goal with H : _ /\ _ |- _ => destruct H end;
    repeat split; try lia; try (apply byte_eqb_nnth; assumption).
Qed.

Lemma take_fragment_eval :
  take_fragment dbg u =
  Some (set_fragment_start (set_ser u (nfirstn (body_end u) (ser u))) None,
        match fragment_start u with Some f => Some (nskipn (f + 1) (ser u)) | None => None end).
Proof.
  pose proof (wf_qf_facts u Hwf) as QF. pose proof (qf_f QF) as Q2.
  unfold take_fragment, body_end. destruct (fragment_start u) as [f|] eqn:Ef.
  - destruct Q2 as (_ & Hb & Hlt). unfold dbg_byte_is. rewrite (byte_is_of_eqb _ _ _ Hb). cbn [bindo assert_o].
    unfold u_slice_from. rewrite slice_from_o_some by lia. destruct dbg; reflexivity.
  - rewrite nfirstn_all by lia. destruct u as [s a b c d e g h i j]. cbn in Ef. subst j. reflexivity.
Qed.

Lemma body2_facts :
  path_end u + 1 <= nlen (body2 u)
  /\ nfirstn (path_end u) (body2 u) = nfirstn (path_end u) (ser u)
  /\ nnth (body2 u) (path_end u) = Some 63
  /\ nskipn (path_end u + 1) (body2 u) = old_query u.
Proof.
  destruct ends_facts as (E1 & E2 & E3 & E4 & E5).
  assert (Hb : nlen (nfirstn (body_end u) (ser u)) = body_end u) by (apply nlen_nfirstn; exact E3).
  unfold body2, old_query, path_end in *. destruct (query_start u) as [q|].
  - destruct E4 as [E4 E4b]. repeat split.
    + lia.
    + apply nfirstn_nfirstn. lia.
    + rewrite nnth_nfirstn by lia. exact E4b.
    + rewrite piece_of_prefix by lia. reflexivity.
  - assert (Hpe : match fragment_start u with Some f => f | None => nlen (ser u) end = body_end u) by exact E4.
    rewrite Hpe. repeat split.
    + rewrite nlen_app, Hb. cbn. lia.
    + rewrite nfirstn_app_le by lia. apply nfirstn_nfirstn. lia.
    + rewrite <- Hb at 2. apply nnth_app_at.
    + apply nskipn_all. rewrite nlen_app, Hb. cbn. lia.
Qed.

Lemma query_pairs_mut_eval :
  query_pairs_mut dbg u =
  Some ((mkUrl (body2 u) (scheme_end u) (username_end u) (host_start u) (host_end u) (hosti u) (port u)
               (path_start u) (Some (path_end u)) None,
         match fragment_start u with Some f => Some (nskipn (f + 1) (ser u)) | None => None end),
        path_end u + 1).
Proof.
  destruct ends_facts as (E1 & E2 & E3 & E4 & E5).
  assert (Hb : nlen (nfirstn (body_end u) (ser u)) = body_end u) by (apply nlen_nfirstn; exact E3).
  unfold query_pairs_mut. rewrite take_fragment_eval.
  unfold body2, path_end in *. cbn [query_start set_fragment_start set_ser ser].
  destruct (query_start u) as [q|] eqn:Eq.
  - destruct E4 as [E4 E4b]. unfold dbg_byte_is, byte_is, byte_at. cbn [ser].
    unfold set_fragment_start, set_ser. cbn [ser]. rewrite nnth_nfirstn by lia. rewrite E4b. cbn [bindo]. rewrite N.eqb_refl. cbn [assert_o].
    replace (if dbg then Some tt else Some tt) with (Some tt) by (destruct dbg; reflexivity).
    destruct u as [s a b c d e g h i j]. cbn in *. subst i. reflexivity.
  - assert (Hpe : match fragment_start u with Some f => f | None => nlen (ser u) end = body_end u) by exact E4.
    rewrite Hpe, Hb. destruct u as [s a b c d e g h i j]. cbn in *. reflexivity.
Qed.

Lemma uq_fin_eval str' :
  uq_fin (uq_set (mkUrl (body2 u) (scheme_end u) (username_end u) (host_start u) (host_end u) (hosti u) (port u)
                        (path_start u) (Some (path_end u)) None,
                  match fragment_start u with Some f => Some (nskipn (f + 1) (ser u)) | None => None end) str')
  = Some (edited u str').
Proof.
  unfold uq_fin, uq_set, edited, frag_tail, restore_already_parsed_fragment. cbn [fst snd set_ser].
  destruct (fragment_start u) as [f|].
  - cbn [fragment_start assert_o bindo ser set_fragment_start set_ser app]. reflexivity.
  - rewrite app_nil_r. reflexivity.
Qed.

Hypothesis Hascii : Forall (fun b => b < 128) (ser u).

Lemma body2_ascii : Forall (fun b => b < 128) (body2 u).
Proof.
  unfold body2. destruct (query_start u).
  - apply Forall_nfirstn. exact Hascii.
  - apply Forall_app. split; [apply Forall_nfirstn; exact Hascii | repeat constructor].
Qed.

(* the shape of the result of one editing session *)
Theorem session_shape ops : Forall op_ok ops ->
  exists str',
    query_pairs_session dbg u ops = Some (edited u str')
    /\ path_end u + 1 <= nlen str'
    /\ nfirstn (path_end u) str' = nfirstn (path_end u) (ser u)
    /\ nnth str' (path_end u) = Some 63
    /\ parse (nskipn (path_end u + 1) str') = Some (snd (ops_effect (None, parse_spec (old_query u)) ops))
    /\ (forall P : N -> Prop, (forall c, form_alpha c = true -> P c) ->
        Forall P (old_query u) -> Forall P (nskipn (path_end u + 1) str')).
Proof.
  intros Hops. destruct body2_facts as (B1 & B2 & B3 & B4).
  unfold query_pairs_session. rewrite query_pairs_mut_eval.
  set (t0 := (mkUrl (body2 u) (scheme_end u) (username_end u) (host_start u) (host_end u) (hosti u) (port u)
                    (path_start u) (Some (path_end u)) None,
              match fragment_start u with Some f => Some (nskipn (f + 1) (ser u)) | None => None end)).
  assert (Hget : uq_get t0 = body2 u) by reflexivity.
  destruct (session_ok_P uq (option url) uq_get uq_set uq_fin uq_get_set uq_set_set uq_set_get
              t0 (path_end u + 1) ops Hops) as (str' & H1 & H2 & H3 & H4 & H5).
  - rewrite Hget, nlen_eq. exact B1.
  - left. rewrite Hget. apply ascii_boundary; [exact body2_ascii | exact B1].
  - rewrite Hget in *. rewrite nlen_eq in H2. change pre with nfirstn in H3. change suf with nskipn in H4, H5. rewrite B4 in H4, H5.
    exists str'. rewrite H1. unfold t0. rewrite uq_fin_eval.
    split; [reflexivity|]. split; [exact H2|]. split.
    { rewrite (nfirstn_prefix (path_end u) (path_end u + 1) _ _ H3) by lia. exact B2. }
    split.
    { rewrite (nnth_prefix (path_end u + 1) _ _ (path_end u) H3) by lia. exact B3. }
    split; [exact H4 | exact H5].
Qed.
End Session.

(* v has u's offsets and a serialization that agrees with u's up to pe (u's end of path) and has '?'
   there; u has '?', '#' or nothing at pe *)
Section Front.
Variable u : url.
Hypothesis Hwf : wf_b u = true.
Variable S : list N.
Variables (qs fs : option N).
Let pe := path_end u.
Hypothesis Hpre : nfirstn pe S = nfirstn pe (ser u).
Hypothesis HS : nnth S pe = Some 63.

Let v := mkUrl S (scheme_end u) (username_end u) (host_start u) (host_end u) (hosti u) (port u)
               (path_start u) qs fs.

Lemma at_pe : pe <= nlen (ser u)
  /\ (nnth (ser u) pe = None \/ nnth (ser u) pe = Some 63 \/ nnth (ser u) pe = Some 35).
Proof using Hwf.
  clear v Hpre HS.
  destruct (ends_facts u Hwf) as (E1 & E2 & E3 & E4 & E5). split; [unfold pe; lia|].
  unfold pe, path_end, body_end in *.
  destruct (query_start u) as [q|]; [right; left; tauto|].
  destruct (fragment_start u) as [f|]; [right; right; tauto|].
  left. unfold nnth, nlen. apply nth_error_None. lia.
Qed.

Lemma pe_lt_S : pe < nlen S.
Proof. eapply nnth_lt. exact HS. Qed.

Lemma se_lt_ps : scheme_end u + 1 <= path_start u /\ path_start u <= pe.
Proof.
  destruct (ends_facts u Hwf) as (E1 & _). split; [|exact E1].
  destruct (has_authority_b u) eqn:Ha.
  - pose proof (wf_auth_facts u Hwf Ha) as F.
    pose proof (af_ue F); pose proof (af_hs F); pose proof (af_he F); pose proof (af_ps F). lia.
  - pose proof (wf_noauth_facts u Hwf Ha) as F. destruct (nf_ps F) as [H|[H _]]; lia.
Qed.

Lemma byte_front i b : i < pe -> byte_eqb S i b = byte_eqb (ser u) i b.
Proof. intros H. unfold byte_eqb. rewrite (nnth_prefix pe _ _ i Hpre H). reflexivity. Qed.

Lemma byte_at_pe_S b : byte_eqb S pe b = (63 =? b).
Proof. unfold byte_eqb. rewrite HS. reflexivity. Qed.

Lemma byte_at_pe_u b : b <> 63 -> b <> 35 -> byte_eqb (ser u) pe b = false.
Proof.
  intros H1 H2. destruct at_pe as (_ & [H|[H|H]]); unfold byte_eqb; rewrite H; [reflexivity | lia | lia].
Qed.

Lemma piece_front x y : x <= y -> y <= pe ->
  nfirstn (y - x) (nskipn x S) = nfirstn (y - x) (nskipn x (ser u)).
Proof. intros. apply (piece_prefix pe); assumption. Qed.

Lemma has_authority_front : has_authority_b v = has_authority_b u.
Proof.
  destruct se_lt_ps as [H1 H2].
  assert (G : forall s, starts_with s_css (nskipn (scheme_end u) s) = true <->
                        (byte_eqb s (scheme_end u) 58 = true /\ byte_eqb s (scheme_end u + 1) 47 = true
                         /\ byte_eqb s (scheme_end u + 2) 47 = true)).
  { intros s. rewrite starts_with_css, !nnth_nskipn. rewrite N.add_0_r. unfold byte_eqb.
    destruct (nnth s (scheme_end u)) as [a|], (nnth s (scheme_end u + 1)) as [b|], (nnth s (scheme_end u + 2)) as [c|];
      split; intros (A & B & C); try discriminate; repeat split;
      try (apply N.eqb_eq; congruence); try (f_equal; apply N.eqb_eq; assumption). }
  unfold has_authority_b. cbn [scheme_end ser v].
  apply Bool.eq_true_iff_eq. rewrite !G.
  rewrite (byte_front (scheme_end u) 58) by lia.
  destruct (N.ltb_spec (scheme_end u + 2) pe) as [Hlt|Hge].
  - rewrite !byte_front by lia. tauto.
  - (* the window reaches pe: both sides fail there *)
    assert (pe = scheme_end u + 1 \/ pe = scheme_end u + 2) as [E|E] by lia.
    + rewrite <- E. rewrite byte_at_pe_S, byte_at_pe_u by lia. cbn. split; intros (_ & A & _); discriminate.
    + rewrite <- E. rewrite byte_at_pe_S, byte_at_pe_u by lia. cbn. split; intros (_ & _ & A); discriminate.
Qed.

Lemma head_front {A} (f : N -> A) (d : A) :
  match S with c :: _ => f c | [] => d end = match ser u with c :: _ => f c | [] => d end.
Proof.
  destruct se_lt_ps as [H1 H2]. pose proof (wf_scheme_facts u Hwf) as (H0 & _).
  unfold nfirstn in Hpre. destruct (N.to_nat pe) as [|k] eqn:Ek; [lia|].
  destruct S as [|a S']; destruct (ser u) as [|b s']; cbn [firstn] in Hpre; try discriminate; [reflexivity|].
  inversion Hpre. reflexivity.
Qed.

Lemma wf_scheme_front : wf_scheme v = true.
Proof.
  destruct se_lt_ps as [H1 H2]. destruct (wf_parts u Hwf) as (H & _ & _).
  unfold wf_scheme in *. cbn [scheme_end ser v].
  rewrite (head_front (fun c => is_alpha c) false).
  rewrite (nfirstn_prefix (scheme_end u) pe _ _ Hpre) by lia.
  rewrite byte_front by lia. exact H.
Qed.

Lemma wf_layout_front :
  (if has_authority_b v then wf_authority v else wf_no_authority v) = true.
Proof.
  destruct se_lt_ps as [H1 H2]. destruct (wf_parts u Hwf) as (_ & H & _).
  pose proof pe_lt_S as HpS. destruct at_pe as [Hpu Hat].
  rewrite has_authority_front. destruct (has_authority_b u) eqn:Ha.
  - pose proof (wf_auth_facts u Hwf Ha) as F.
    pose proof (af_ue F) as A1; pose proof (af_hs F) as A2; pose proof (af_he F) as A3; pose proof (af_ps F) as A4.
    unfold wf_authority in *. cbn [scheme_end username_end host_start host_end hosti port path_start ser v].
    repeat match type of H with (_ && _) = true => apply andb_true_iff in H; let H' := fresh "K" in destruct H as [H H'] end.
    repeat (apply andb_true_iff; split); try lia; try assumption.
    + (* userinfo delimiters *)
      destruct (username_end u =? host_start u) eqn:E; [exact K3|].
      rewrite (byte_front (username_end u) 58) by lia. rewrite (byte_front (username_end u) 64) by lia.
      destruct (byte_eqb (ser u) (username_end u) 58) eqn:E58; [|exact K3].
      apply andb_true_iff in K3. destruct K3 as [K3a K3b]. rewrite byte_front by lia. rewrite K3a, K3b. reflexivity.
    + (* no ':' at username_end without userinfo *)
      destruct (username_end u =? host_start u) eqn:E; [|reflexivity].
      destruct (N.ltb_spec (username_end u) pe) as [Hlt|Hge].
      * rewrite byte_front by lia. exact K2.
      * assert (username_end u = pe) as -> by lia. rewrite byte_at_pe_S. reflexivity.
    + (* port *)
      destruct (port u) as [p|]; [|exact K0].
      repeat match type of K0 with (_ && _) = true => apply andb_true_iff in K0; let H' := fresh "Q" in destruct K0 as [K0 H'] end.
      rewrite byte_front by lia. rewrite piece_front by lia. rewrite K0, Q1, Q0, Q. reflexivity.
    + (* what follows the authority *)
      destruct (N.ltb_spec (path_start u) pe) as [Hlt|Hge].
      * rewrite !byte_front by lia. replace (path_start u =? nlen (ser u)) with false in K by lia.
        replace (path_start u =? nlen S) with false by lia. exact K.
      * assert (path_start u = pe) as -> by lia. rewrite (byte_at_pe_S 63). cbn. rewrite !orb_true_r. reflexivity.
  - pose proof (wf_noauth_facts u Hwf Ha) as F.
    unfold wf_no_authority in *. cbn [scheme_end username_end host_start host_end hosti port path_start ser v].
    repeat match type of H with (_ && _) = true => apply andb_true_iff in H; let H' := fresh "K" in destruct H as [H H'] end.
    repeat (apply andb_true_iff; split); try lia; try assumption.
    apply orb_true_iff in K. apply orb_true_iff. destruct K as [K|K]; [left; exact K|]. right.
    repeat match type of K with (_ && _) = true => apply andb_true_iff in K; let H' := fresh "Q" in destruct K as [K H'] end.
    (* the "/." marker: the path starts with "//", so pe is at least two bytes further *)
    pose proof Q as Qss. apply starts_with_ss in Qss. rewrite !nnth_nskipn, N.add_0_r in Qss. destruct Qss as [S0 S1].
    assert (Hpe2 : path_start u + 1 < pe).
    { destruct (N.ltb_spec (path_start u + 1) pe) as [Hlt|Hge]; [exact Hlt|]. exfalso.
      assert (pe = path_start u \/ pe = path_start u + 1) as [E|E] by lia; rewrite E in Hat;
        destruct Hat as [Hx|[Hx|Hx]]; congruence. }
    rewrite !byte_front by lia. rewrite K, Q1, Q0. cbn [andb].
    apply starts_with_ss. rewrite !nnth_nskipn, N.add_0_r.
    rewrite (nnth_prefix pe _ _ (path_start u) Hpre) by lia.
    rewrite (nnth_prefix pe _ _ (path_start u + 1) Hpre) by lia. tauto.
Qed.
End Front.

Lemma nskipn_past a x b : nskipn (nlen a + 1) (a ++ x :: b) = b.
Proof.
  replace (nlen a + 1) with (1 + nlen a) by lia. rewrite <- nskipn_nskipn.
  rewrite nskipn_app_le by lia. rewrite (nskipn_all (nlen a) a) by lia. reflexivity.
Qed.

Lemma alpha_not_sharp c : form_alpha c = true -> negb (c =? 35) = true.
Proof.
  intros H. destruct (N.eqb_spec c 35) as [->|Hne]; [vm_compute in H; discriminate | reflexivity].
Qed.

Section Result.
Variable dbg : bool.
Variable u : url.
Hypothesis Hwf : wf_b u = true.
Variable str' : list N.
Let pe := path_end u.
Hypothesis F1 : pe + 1 <= nlen str'.
Hypothesis F2 : nfirstn pe str' = nfirstn pe (ser u).
Hypothesis F3 : nnth str' pe = Some 63.
Let u' := edited u str'.

Lemma edited_prefix : nfirstn pe (ser u') = nfirstn pe (ser u).
Proof. unfold u', edited. cbn [ser]. rewrite nfirstn_app_le by lia. exact F2. Qed.

Lemma edited_qmark : nnth (ser u') pe = Some 63.
Proof. unfold u', edited. cbn [ser]. rewrite nnth_app_lt by lia. exact F3. Qed.

Lemma edited_len : nlen str' <= nlen (ser u').
Proof. unfold u', edited. cbn [ser]. rewrite nlen_app. lia. Qed.

Lemma query_edited : query dbg u' = Some (Some (nskipn (pe + 1) str')).
Proof.
  pose proof edited_qmark as Hq. pose proof edited_len as Hl.
  unfold query. change (query_start u') with (Some pe).
  assert (Hb : byte_is u' pe 63 = Some true).
  { unfold byte_is, byte_at. rewrite Hq. reflexivity. }
  cbv beta iota. rewrite Hb. cbn [bindo assert_o].
  replace (if dbg then Some tt else Some tt) with (Some tt) by (destruct dbg; reflexivity). cbn [bindo].
  change (fragment_start u') with (match fragment_start u with Some _ => Some (nlen str') | None => None end).
  destruct (fragment_start u) as [f|] eqn:Ef.
  - unfold u_slice. rewrite slice_o_some by lia.
    rewrite piece_of_prefix by lia. unfold u', edited, frag_tail. cbn [ser]. rewrite Ef.
    rewrite nfirstn_app_le by lia. rewrite nfirstn_all by lia. reflexivity.
  - unfold u_slice_from. rewrite slice_from_o_some by lia.
    unfold u', edited, frag_tail. cbn [ser]. rewrite Ef, app_nil_r. reflexivity.
Qed.

Lemma fragment_edited : fragment dbg u' = fragment dbg u.
Proof.
  pose proof (wf_qf_facts u Hwf) as QF. pose proof (qf_f QF) as Q2.
  unfold fragment, u', edited, frag_tail. cbn [fragment_start ser].
  destruct (fragment_start u) as [f|]; [|reflexivity].
  destruct Q2 as (_ & Hb & Hlt). rewrite (byte_is_of_eqb _ _ _ Hb).
  unfold byte_is, byte_at. cbn [ser]. rewrite nnth_app_at. cbn [bindo]. rewrite N.eqb_refl. cbn [assert_o].
  unfold u_slice_from. cbn [ser]. rewrite !slice_from_o_some; [|lia|].
  - rewrite nskipn_past. reflexivity.
  - rewrite nlen_app, nlen_cons. lia.
Qed.

Lemma path_edited : path u' = path u.
Proof.
  pose proof (se_lt_ps u Hwf) as [H1 H2]. fold pe in H2. pose proof edited_len as Hl.
  rewrite (path_eval u Hwf). unfold piece. cbn [pidx]. change (match query_start u with
    | Some q => q | None => match fragment_start u with Some f => f | None => nlen (ser u) end end) with pe.
  unfold path. change (query_start u') with (Some pe). cbv beta iota. change (path_start u') with (path_start u).
  unfold u_slice. rewrite slice_o_some by lia.
  f_equal. apply (piece_prefix pe); [exact edited_prefix | lia | lia].
Qed.

Lemma scheme_edited : scheme u' = scheme u.
Proof.
  pose proof (se_lt_ps u Hwf) as [H1 H2]. fold pe in H2. pose proof edited_len as Hl.
  destruct (at_pe u Hwf) as [Hpu _]. fold pe in Hpu.
  unfold scheme, u_slice_to. change (scheme_end u') with (scheme_end u). rewrite !slice_to_o_some by lia.
  f_equal. apply (nfirstn_prefix _ pe); [exact edited_prefix | lia].
Qed.

Lemma has_authority_edited : has_authority_b u' = has_authority_b u.
Proof. exact (has_authority_front u Hwf _ _ _ edited_prefix edited_qmark). Qed.

(* the record stays well formed as long as the new query text has no '#' *)
Lemma wf_edited : Forall (fun c => negb (c =? 35) = true) (nskipn (pe + 1) str') -> wf_b u' = true.
Proof.
  intros Hns. pose proof (se_lt_ps u Hwf) as [H1 H2]. fold pe in H2. pose proof edited_len as Hl.
  unfold wf_b. apply andb_true_iff. split; [apply andb_true_iff; split|].
  - exact (wf_scheme_front u Hwf _ _ _ edited_prefix edited_qmark).
  - exact (wf_layout_front u Hwf _ _ _ edited_prefix edited_qmark).
  - destruct (wf_parts u Hwf) as (_ & _ & H). unfold wf_query_fragment in *.
    repeat match type of H with (_ && _) = true => apply andb_true_iff in H; let H' := fresh "K" in destruct H as [H H'] end.
    assert (Hq : byte_eqb (ser u') pe 63 = true) by (unfold byte_eqb; rewrite edited_qmark; reflexivity).
    change (query_start u') with (Some pe). change (path_start u') with (path_start u).
    change (fragment_start u') with (match fragment_start u with Some _ => Some (nlen str') | None => None end).
    cbv beta iota.
    apply andb_true_iff; split; [apply andb_true_iff; split; [apply andb_true_iff; split; [apply andb_true_iff; split|]|]|].
    + replace (path_start u <=? pe) with true by lia. exact Hq.
    + destruct (fragment_start u) as [f|] eqn:Ef; [|reflexivity].
      replace (path_start u <=? nlen str') with true by lia. cbn [andb].
      unfold byte_eqb, u', edited, frag_tail. cbn [ser]. rewrite Ef, nnth_app_at. reflexivity.
    + destruct (fragment_start u); [lia | reflexivity].
    + (* the path is the same list as before *)
      rewrite (piece_prefix pe _ _ (path_start u) pe edited_prefix) by lia. exact K0.
    + (* the new query text has no '#' *)
      rewrite Forall_forall in Hns.
      destruct (fragment_start u) as [f|] eqn:Ef; apply forallb_forall; intros c Hc; apply Hns.
      * rewrite piece_of_prefix in Hc by lia. unfold u', edited, frag_tail in Hc. cbn [ser] in Hc.
        rewrite Ef in Hc. rewrite nfirstn_app_le in Hc by lia. rewrite nfirstn_all in Hc by lia. exact Hc.
      * unfold u', edited, frag_tail in Hc. cbn [ser] in Hc. rewrite Ef, app_nil_r in Hc. exact Hc.
Qed.
End Result.

Lemma query_old dbg u : wf_b u = true ->
  query dbg u = Some (match query_start u with Some _ => Some (old_query u) | None => None end).
Proof.
  intros Hwf. rewrite (query_eval dbg u Hwf). unfold old_query, body_end, piece. cbn [pidx].
  destruct (query_start u); reflexivity.
Qed.

Lemma old_query_of_query dbg u : wf_b u = true ->
  match query dbg u with Some (Some x) => x | _ => [] end = old_query u.
Proof.
  intros Hwf. rewrite (query_old dbg u Hwf). unfold old_query. destruct (query_start u); reflexivity.
Qed.

Lemma old_query_no_sharp u : wf_b u = true -> Forall (fun c => negb (c =? 35) = true) (old_query u).
Proof.
  intros Hwf. destruct (wf_parts u Hwf) as (_ & _ & H). unfold wf_query_fragment in H.
  repeat match type of H with (_ && _) = true => apply andb_true_iff in H; let H' := fresh "K" in destruct H as [H H'] end.
  unfold old_query, body_end. destruct (query_start u) as [q|]; [|constructor].
  destruct (fragment_start u) as [f|].
  - apply Forall_forall. rewrite forallb_forall in K. exact K.
  - apply Forall_nfirstn. apply Forall_forall. rewrite forallb_forall in K. exact K.
Qed.

(* scheme, username, password, host_str, path of the edited Url read as those of u *)
Section Components.
Variable dbg : bool.
Variable u : url.
Hypothesis Hwf : wf_b u = true.
Variable str' : list N.
Let pe := path_end u.
Hypothesis F1 : pe + 1 <= nlen str'.
Hypothesis F2 : nfirstn pe str' = nfirstn pe (ser u).
Hypothesis F3 : nnth str' pe = Some 63.
Let u' := edited u str'.
Hypothesis Hwf' : wf_b u' = true.

Let Hpre := edited_prefix u str' F1 F2.
Let Hqm := edited_qmark u str' F1 F3.

Lemma piece_edited a b : a <= b -> b <= pe -> piece u' a b = piece u a b.
Proof. intros Hab Hb. unfold piece. apply (piece_prefix pe); assumption. Qed.

Lemma ps_le_pe : path_start u <= pe.
Proof. exact (proj2 (se_lt_ps u Hwf)). Qed.

Lemma username_edited : username dbg u' = username dbg u.
Proof.
  rewrite (username_eval dbg u' Hwf'), (username_eval dbg u Hwf). f_equal.
  pose proof (pidx_monotone u Hwf BeforeUsername AfterUsername ltac:(cbn; lia)) as M1.
  pose proof (pidx_monotone u Hwf AfterUsername BeforePath ltac:(cbn; lia)) as M2.
  pose proof ps_le_pe as M3.
  cbn [pidx] in *. change (username_end u') with (username_end u). change (scheme_end u') with (scheme_end u).
  pose proof (has_authority_edited u Hwf str' F1 F2 F3) as Hae. fold u' in Hae. rewrite Hae. apply piece_edited; lia.
Qed.

Lemma host_str_edited : host_str u' = host_str u.
Proof.
  rewrite (host_str_eval u' Hwf'), (host_str_eval u Hwf). change (has_host u') with (has_host u).
  destruct (has_host u); [|reflexivity]. f_equal. f_equal.
  pose proof (pidx_monotone u Hwf BeforeHost AfterHost ltac:(cbn; lia)) as M1.
  pose proof (pidx_monotone u Hwf AfterHost BeforePath ltac:(cbn; lia)) as M2.
  pose proof ps_le_pe as M3.
  cbn [pidx] in *. change (host_start u') with (host_start u). change (host_end u') with (host_end u).
  apply piece_edited; lia.
Qed.

Lemma has_password_edited : has_password_b u' = has_password_b u.
Proof.
  unfold has_password_b. pose proof (has_authority_edited u Hwf str' F1 F2 F3) as Hae. fold u' in Hae. rewrite Hae.
  change (username_end u') with (username_end u).
  destruct (has_authority_b u) eqn:Ha; [|reflexivity]. cbn [andb].
  pose proof (wf_auth_facts u Hwf Ha) as F.
  pose proof (af_hs F) as A2; pose proof (af_he F) as A3; pose proof (af_ps F) as A4. pose proof ps_le_pe as M3.
  destruct (at_pe u Hwf) as [Hpu _]. fold pe in Hpu.
  pose proof (pe_lt_S u (ser u') Hqm) as HlS. fold pe in HlS.
  destruct (N.ltb_spec (username_end u) pe) as [Hlt|Hge].
  - rewrite (byte_front u (ser u') Hpre) by exact Hlt.
    replace (username_end u =? nlen (ser u')) with false by lia.
    replace (username_end u =? nlen (ser u)) with false by lia. reflexivity.
  - assert (username_end u = pe) as -> by lia.
    unfold pe. rewrite (byte_at_pe_S u (ser u') Hqm), (byte_at_pe_u u Hwf) by lia.
    cbn. rewrite !andb_false_r. reflexivity.
Qed.

Lemma password_edited : password dbg u' = password dbg u.
Proof.
  rewrite (password_piece dbg u' Hwf'), (password_piece dbg u Hwf). rewrite has_password_edited.
  destruct (has_password_b u) eqn:Hp; [|reflexivity]. f_equal. f_equal.
  pose proof (pidx_monotone u Hwf BeforePassword AfterPassword ltac:(cbn; lia)) as M1.
  pose proof (pidx_monotone u Hwf AfterPassword BeforePath ltac:(cbn; lia)) as M2.
  pose proof ps_le_pe as M3.
  cbn [pidx] in *. rewrite has_password_edited. rewrite Hp in *.
  change (username_end u') with (username_end u). change (host_start u') with (host_start u).
  apply piece_edited; lia.
Qed.
End Components.

(* the URL-editing clause; Properties/C15.v states it as C15_url *)
Theorem query_pairs_url dbg u ops :
  wf_b u = true -> Forall (fun b => b < 128) (ser u) -> Forall op_ok ops ->
  exists u',
    query_pairs_session dbg u ops = Some u'
    (* (1) the query reads back as the retained pairs followed by the appended ones *)
    /\ query_pairs dbg u' =
       Some (Some (snd (ops_effect (None, parse_spec (match query dbg u with Some (Some x) => x | _ => [] end)) ops)))
    (* (2) everything before the query is unchanged *)
    /\ (scheme_end u' = scheme_end u /\ username_end u' = username_end u /\ host_start u' = host_start u
        /\ host_end u' = host_end u /\ hosti u' = hosti u /\ port u' = port u /\ path_start u' = path_start u)
    /\ (query_start u' = Some (path_end u)
        /\ nfirstn (path_end u) (ser u') = nfirstn (path_end u) (ser u)
        /\ nnth (ser u') (path_end u) = Some 63)
    /\ (scheme u' = scheme u /\ username dbg u' = username dbg u /\ password dbg u' = password dbg u
        /\ host_str u' = host_str u /\ path u' = path u)
    (* (3) the fragment is preserved *)
    /\ fragment dbg u' = fragment dbg u
    (* (4) the record stays well formed *)
    /\ wf_b u' = true.
Proof.
  intros Hwf Hascii Hops.
  destruct (session_shape dbg u Hwf Hascii ops Hops) as (str' & H1 & F1 & F2 & F3 & F4 & F5).
  assert (Hns : Forall (fun c => negb (c =? 35) = true) (nskipn (path_end u + 1) str')).
  { apply (F5 (fun c => negb (c =? 35) = true) alpha_not_sharp). apply old_query_no_sharp. exact Hwf. }
  assert (Hwf' : wf_b (edited u str') = true) by (eapply wf_edited; eassumption).
  exists (edited u str'). split; [exact H1|]. split.
  { unfold query_pairs. rewrite (query_edited dbg u str') by assumption. rewrite F4.
    rewrite (old_query_of_query dbg u Hwf). reflexivity. }
  split; [repeat split|]. split.
  { split; [reflexivity|]. split; [eapply edited_prefix; eassumption | eapply edited_qmark; eassumption]. }
  split.
  { split; [eapply scheme_edited; eassumption|]. split; [eapply username_edited; eassumption|].
    split; [eapply password_edited; eassumption|].
    split; [eapply host_str_edited; eassumption | eapply path_edited; eassumption]. }
  split; [eapply fragment_edited; eassumption | exact Hwf'].
Qed.
