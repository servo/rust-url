(* Proofs/C05_Query.v - component clause for the stored query slice of parse results.
   For any predicate Q on texts that holds of [] and of every piece the query encoder writes and is closed
   under ++, the shape  ser u = X ++ "?" ++ tq ++ rest  with Q tq  (query_okuQ) passes from the base (whose
   query can be kept by an empty or fragment-only reference) to the result.  query_oku is the instance
   "inside 0x21..0x7E and free of '#', space, double quote, '<', '>'"; the instance without the byte-range
   part is the form a base that only satisfies the component clauses provides (C05_ParseAll). *)
From RU Require Import Base.Prelude Base.Utf8 Model.AsciiSet Gen.Tables Model.PercentEncoding
  Model.HostT Model.UrlRecord Model.Parser Model.Setters Proofs.ListN Proofs.C05_Enc Proofs.C05_Parser
  Proofs.C05_Setters Proofs.C05_Tail Proofs.C05_Frag.

Section Clause.
Variable Q : list N -> Prop.

(* s = X ++ "?" ++ tq ++ rest, query_start = |X|, Q tq, and rest is empty (no fragment) or begins
   at fragment_start *)
Definition query_okQ (s : list N) (qs fs : option N) : Prop :=
  match qs with
  | Some q => exists X tq rest, s = X ++ [63] ++ tq ++ rest /\ q = nlen X /\ Q tq
              /\ match fs with Some f => f = nlen X + 1 + nlen tq | None => rest = [] end
  | None => True
  end.
Definition query_okuQ (u : url) : Prop := query_okQ (ser u) (query_start u) (fragment_start u).

(* the accessor returns exactly tq *)
Lemma query_okuQ_query dbg u q : query_okuQ u -> query dbg u = Some (Some q) -> Q q.
Proof.
  unfold query_okuQ, query_okQ, query. destruct (query_start u) as [qs|]; [|discriminate].
  intros (X & tq & rest & Hs & Hq & Hc & Hf) H.
  assert (nskipn (nlen X + 1) (X ++ [63] ++ tq ++ rest) = tq ++ rest) as E.
  { unfold nskipn, nlen. replace (N.to_nat (N.of_nat (length X) + 1)) with (length X + 1)%nat by lia.
    rewrite skipn_app. rewrite skipn_all2 by lia. replace (length X + 1 - length X)%nat with 1%nat by lia. reflexivity. }
  destruct (fragment_start u) as [f|].
  - ob H x Hx. unfold u_slice, slice_o in H. rewrite Hs in H.
    destruct ((qs + 1 <=? f) && (f <=? nlen (X ++ [63] ++ tq ++ rest))); cbn [bindo] in H; [|discriminate].
    inversion H; subst q qs f. clear H. cbn [app] in E |- *. rewrite E.
    replace (nlen X + 1 + nlen tq - (nlen X + 1)) with (nlen tq) by lia.
    unfold nfirstn, nlen. rewrite Nat2N.id. rewrite <- (Nat.add_0_r (length tq)), firstn_app_2. cbn [firstn].
    rewrite app_nil_r. exact Hc.
  - ob H x Hx. unfold u_slice_from, slice_from_o in H. rewrite Hs in H.
    destruct (qs + 1 <=? nlen (X ++ [63] ++ tq ++ rest)); cbn [bindo] in H; [|discriminate].
    inversion H; subst q qs rest. clear H. cbn [app] in E |- *. rewrite E, app_nil_r. exact Hc.
Qed.

Hypothesis Q_nil : Q [].
Hypothesis Q_app : forall a b, Q a -> Q b -> Q (a ++ b).
Hypothesis Q_piece : forall st xs, Q (pe_display (query_set st) xs).

Lemma pqf_queryQ ovr ctx st se sr l s qs fs :
  parse_query_and_fragment ovr ctx st se sr l = POk (s, qs, fs) -> query_okQ s qs fs.
Proof.
  unfold parse_query_and_fragment. intros H.
  destruct (inp_next l) as [[c r]|]; [|inversion H; subst; exact I].
  destruct (c =? 35); [pb H f0 Hf0; inversion H; subst; exact I|].
  destruct (c =? 63); [|discriminate]. pb H q0 Hq0. apply to_u32_eq in Hq0. subst q0.
  unfold parse_query in H.
  destruct (query_loop_adds Q (query_set st) Q_nil Q_app (Q_piece st) (query_enc ovr (nfirstn se (sr ++ [63]))) (ctx_eqb ctx CUrlParser) r
              (sr ++ [63]) []) as [tq [Ht Hc]].
  destruct (parse_query_loop (query_set st) (query_enc ovr (nfirstn se (sr ++ [63]))) (ctx_eqb ctx CUrlParser)
              (sr ++ [63]) [] r) as [ser1 rem]. cbn [fst] in Ht. subst ser1.
  destruct rem as [r2|].
  - pb H f0 Hf0. apply to_u32_eq in Hf0. subst f0. inversion H; subst. unfold parse_fragment.
    destruct (parse_fragment_loop_clean r2 (((sr ++ [63]) ++ tq) ++ [35]) []) as [t2 [Ht2 _]]. rewrite Ht2.
    exists sr, tq, ([35] ++ t2). split; [rewrite <- !app_assoc; reflexivity|]. split; [reflexivity|].
    split; [exact Hc|]. rewrite !nlen_app. change (nlen [63]) with 1. lia.
  - inversion H; subst. exists sr, tq, []. split; [rewrite app_nil_r, <- !app_assoc; reflexivity|].
    split; [reflexivity|]. split; [exact Hc | reflexivity].
Qed.

(* keeping the part of a base before its fragment *)
Lemma before_fragment_queryQ b : query_okuQ b -> query_okQ (b_before_fragment b) (query_start b) None.
Proof.
  unfold query_okuQ, query_okQ, b_before_fragment. destruct (query_start b) as [q|]; [|trivial].
  intros (X & tq & rest & Hs & Hq & Hc & Hf).
  destruct (fragment_start b) as [f|].
  - exists X, tq, []. split; [|split; [exact Hq | split; [exact Hc | reflexivity]]].
    rewrite Hs, Hf. rewrite app_nil_r. unfold nfirstn, nlen.
    set (L := X ++ [63] ++ tq).
    assert (N.to_nat (N.of_nat (length X) + 1 + N.of_nat (length tq)) = (length L + 0)%nat) as El.
    { unfold L. rewrite !app_length. cbn [length]. lia. }
    rewrite El. replace (X ++ [63] ++ tq ++ rest) with (L ++ rest) by (unfold L; rewrite <- !app_assoc; reflexivity).
    rewrite firstn_app_2. cbn [firstn]. rewrite app_nil_r. reflexivity.
  - subst rest. exists X, tq, []. split; [exact Hs|]. split; [exact Hq|]. split; [exact Hc | reflexivity].
Qed.

Lemma fragment_only_queryQ base l u : query_okuQ base -> fragment_only base l = POk u -> query_okuQ u.
Proof.
  intros Hb H. unfold fragment_only in H. cbv zeta in H. pb H f0 Hf0. apply to_u32_eq in Hf0. subst f0.
  inversion H; subst. unfold query_okuQ. cbn [ser query_start fragment_start].
  pose proof (before_fragment_queryQ base Hb) as Hq. unfold query_okQ in *.
  destruct (query_start base) as [q|]; [|exact I].
  destruct Hq as (X & tq & rest & Hs & Hq & Hc & Hr). subst rest. rewrite app_nil_r in Hs.
  unfold parse_fragment.
  destruct (parse_fragment_loop_clean (match inp_next l with Some (_, r) => r | None => [] end)
              (b_before_fragment base ++ [35]) []) as [t [Ht _]]. rewrite Ht, Hs.
  exists X, tq, ([35] ++ t). split; [rewrite <- !app_assoc; reflexivity|]. split; [exact Hq|]. split; [exact Hc|].
  rewrite !nlen_app. change (nlen [63]) with 1. lia.
Qed.

Theorem parse_url_queryQ dbg hp hpo hd ovr base input u :
  match base with Some b => query_okuQ b | None => True end ->
  parse_url dbg hp hpo hd ovr base input = POk u -> query_okuQ u.
Proof.
  intros Hb H. apply (tail_origin_elim query_okQ base u); [.. | exact (parse_url_tail dbg hp hpo hd ovr base input u H)].
  - intros. eapply pqf_queryQ. eassumption.
  - intros b l u' E H'. subst base. exact (fragment_only_queryQ b l u' Hb H').
  - intros b E. subst base. exact (before_fragment_queryQ b Hb).
Qed.

End Clause.

Lemma query_piece_clean st xs : comp_clean D_QUERY (pe_display (query_set st) xs).
Proof.
  unfold query_set. destruct (st_is_special st).
  - apply pe_display_clean; [apply T_SPECIAL_QUERY_facts | | reflexivity].
    pose proof (proj2 T_SPECIAL_QUERY_facts) as H. unfold D_SPECIAL_QUERY, covers_list in H. cbn [forallb] in H.
    apply andb_true_iff in H. exact (proj2 H).
  - apply pe_display_clean; [apply T_QUERY_facts | apply T_QUERY_facts | reflexivity].
Qed.

(* query_okQ (comp_clean D_QUERY), written out *)
Definition query_ok (s : list N) (qs fs : option N) : Prop :=
  match qs with
  | Some q => exists X tq rest, s = X ++ [63] ++ tq ++ rest /\ q = nlen X /\ comp_clean D_QUERY tq
              /\ match fs with Some f => f = nlen X + 1 + nlen tq | None => rest = [] end
  | None => True
  end.
Definition query_oku (u : url) : Prop := query_ok (ser u) (query_start u) (fragment_start u).

Theorem parse_url_query dbg hp hpo hd ovr base input u :
  match base with Some b => query_oku b | None => True end ->
  parse_url dbg hp hpo hd ovr base input = POk u -> query_oku u.
Proof. exact (parse_url_queryQ _ (comp_clean_nil _) (comp_clean_app _) query_piece_clean dbg hp hpo hd ovr base input u). Qed.

Lemma query_oku_query dbg u q : query_oku u -> query dbg u = Some (Some q) -> comp_clean D_QUERY q.
Proof. exact (query_okuQ_query (comp_clean D_QUERY) dbg u q). Qed.
