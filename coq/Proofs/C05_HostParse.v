(* Proofs/C05_HostParse.v - where the host text of a parse result comes from, for every arm of the URL parser.
   ht u = the stored host text (the slice [host_start, host_end) of the serialization).
   For every record parse_url returns (any input numbers, any override, base: well formed with host_text_ok and bk):
     hosti u = HI_None,
     or ht u is the Display of a non-empty host that the host parser OF THE SCHEME CLASS of u returned
        (Host::parse for special schemes, Host::parse_opaque otherwise)             [after "//", file host state],
     or the base has a host, ht u = ht b and u has the scheme class of b           [relative references, file arms].
   Hence HC Q (special scheme => host_str satisfies Q) holds for parse results, from HostSpQ and HC Q of the base. *)
From RU Require Import Base.Prelude Base.Utf8 Model.AsciiSet Gen.Tables Model.PercentEncoding
  Model.HostT Model.UrlRecord Model.Parser Model.Setters Model.WF
  Proofs.ListN Proofs.C06_List Proofs.C02_Parts Proofs.C03_WF Proofs.C06_WFI Proofs.C06_Tail Proofs.C06_Steps
  Proofs.C06_Suffix Proofs.C06_PathParser Proofs.C06_FragQuery Proofs.C06_Front Proofs.C06_Host Proofs.C04_Parse Proofs.C04_PathTotal Proofs.C04_ParseTotal
  Proofs.C03_ReachParts Proofs.C03_Reach Proofs.C03_ReachFile
  Proofs.C05_Enc Proofs.C05_Parser Proofs.C05_Sharp Proofs.C05_Frag Proofs.C05_PathClean Proofs.C05_ParseUI Proofs.C05_ParseArms Proofs.C05_ParseAll
  Proofs.C05_BaseOk Proofs.C05_CompSteps3 Proofs.C05_AuthOfs Proofs.C05_AuthParse Proofs.C05_HostText.

Definition ht (u : url) : list N := piece u (host_start u) (host_end u).

Lemma piece_mid u X t Y : ser u = X ++ t ++ Y -> host_start u = nlen X -> host_end u = nlen X + nlen t -> ht u = t.
Proof.
  intros E E1 E2. unfold ht, piece. rewrite E, E1, E2. rewrite nskipn_app_exact.
  replace (nlen X + nlen t - nlen X) with (nlen t) by lia. apply nfirstn_app_exact.
Qed.

Lemma host_str_ht u : wf_b u = true -> host_str u = Some (if has_host u then Some (ht u) else None).
Proof. intros W. exact (host_str_eval u W). Qed.

(* the record keeps the front of the base: offsets of scheme and host, and every byte in front of the path *)
Definition CopyB (b u : url) : Prop :=
  scheme_end u = scheme_end b /\ host_start u = host_start b /\ host_end u = host_end b
  /\ agree_pre (path_start b) (ser b) (ser u).

Lemma has_host_bounds b : wf_b b = true -> host_text_ok b -> hosti b <> HI_None ->
  scheme_end b + 3 <= host_start b /\ host_start b < host_end b /\ host_end b <= path_start b /\ path_start b <= nlen (ser b).
Proof.
  intros W HT Hn. assert (has_host b = true) as Hh by (unfold has_host; destruct (hosti b); [contradiction | reflexivity ..]).
  pose proof (has_host_authority b W Hh) as Ha. pose proof (wf_auth_facts b W Ha) as F.
  pose proof (af_ue F); pose proof (af_hs F); pose proof (af_he F); pose proof (af_ps F); pose proof (af_len F).
  destruct (HT Hh) as (T1 & _). lia.
Qed.

Lemma copyb_ht b u : wf_b b = true -> host_text_ok b -> hosti b <> HI_None -> CopyB b u ->
  ht u = ht b /\ b_scheme u = b_scheme b.
Proof.
  intros W HT Hn (E1 & E2 & E3 & Hpre). destruct (has_host_bounds b W HT Hn) as (B1 & B2 & B3 & B4). split.
  - unfold ht, piece. rewrite E2, E3. apply (pre_piece (path_start b) _ _ _ _ Hpre). exact B3.
  - unfold b_scheme. rewrite E1. apply (pre_firstn (path_start b) _ _ _ Hpre). lia.
Qed.

Section Arms.
Variable dbg : bool.
Variable hp hpo : list N -> result host.
Variable hd : host -> list N.
Variable ovr : option (list N -> list N).
Hypothesis HW : HostWf hp hpo hd.

(* the host text is the Display of a non-empty host returned by the parser of class sp *)
Definition Fresh (sp : bool) (u : url) : Prop :=
  exists h, h <> HDomain [] /\ origin_st hp hpo sp h /\ ht u = hd h.

Lemma origin_nonempty sp h : h <> HDomain [] -> origin_st hp hpo sp h -> hd h <> [].
Proof.
  intros Hne Ho. destruct HW as (W1 & W2 & _).
  destruct sp; destruct Ho as [s E]; [exact (proj1 (W1 s h E Hne)) | exact (proj1 (W2 s h E Hne))].
Qed.

(* with_query_and_fragment behind an authority with a host *)
Lemma wqf_pre ctx st se ue hs he hi pt ps s rem u :
  with_query_and_fragment ovr ctx st se ue hs he hi pt ps s rem = POk u -> se + 3 < ps ->
  scheme_end u = se /\ host_start u = hs /\ host_end u = he /\ hosti u = hi /\ exists t, ser u = s ++ t.
Proof.
  intros H L.
  destruct (with_query_and_fragment_steps ovr _ _ _ _ _ _ _ _ _ _ _ _ H) as (s1 & ps1 & s2 & qs & fs & F & Hb & ->).
  destruct F as [|Eps _|Eps _ _]; [|lia|lia].
  destruct (parse_query_and_fragment_app _ _ _ _ _ _ _ _ _ Hb) as (t & -> & _).
  repeat split. exists t. reflexivity.
Qed.

Lemma phap_origin ctx st se ser l ser2 he hi pt rem :
  parse_host_and_port hp hpo hd ctx st se ser l = POk (ser2, he, hi, pt, rem) ->
  exists h, ser2 = ser ++ hd h ++ ptext pt /\ he = nlen ser + nlen (hd h) /\ hi = hi_of_host h
    /\ (h = HDomain [] \/ origin_st hp hpo (st_is_special st) h).
Proof.
  unfold parse_host_and_port. intros H. pb H a Ha. destruct a as [h remaining]. cbv zeta in H.
  pose proof (parse_host_origin_st hp hpo _ _ _ _ Ha) as Ho.
  pb H he0 Hhe. apply to_u32_eq in Hhe. subst he0. pb H x Hx.
  exists h. destruct (inp_split_prefix_char 58 remaining) as [rm|].
  - pb H b Hb. destruct b as [port rem2]. inversion H; subst. split; [|split; [apply nlen_app | split; [reflexivity | exact Ho]]].
    destruct pt as [p|]; cbn [ptext]; [|rewrite app_nil_r; reflexivity]. rewrite <- app_assoc. reflexivity.
  - inversion H; subst. cbn [ptext]. rewrite app_nil_r. split; [reflexivity|]. split; [apply nlen_app|]. split; [reflexivity | exact Ho].
Qed.

Theorem ads_host ctx st se ser0 l u : nlen ser0 = se + 1 ->
  after_double_slash dbg hp hpo hd ovr ctx st se ser0 l = POk u ->
  hosti u = HI_None \/ Fresh (st_is_special st) u.
Proof.
  intros L0 H0.
  destruct (after_double_slash_steps dbg hp hpo hd ovr _ _ _ _ _ _ H0)
    as (ser1 & ue & rm & ser2 & he & hi & pt & rm2 & s3 & hh & rm3 & Ha & Hb & Hc & H).
  destruct (parse_userinfo_shape _ _ _ _ _ _ Ha) as (x & -> & _).
  destruct (phap_origin _ _ _ _ _ _ _ _ _ _ Hb) as (h & -> & -> & -> & Ho).
  destruct (parse_path_start_clean dbg ctx st true _ rm2 s3 hh rm3 Hc) as (P & -> & _).
  destruct (host_eq_dec_empty h) as [->|Hne].
  { left. apply wqf_fields in H. exact (proj2 (proj2 H)). }
  right. destruct Ho as [Ho|Ho]; [contradiction|].
  pose proof (origin_nonempty _ h Hne Ho) as Hnn.
  assert (1 <= nlen (hd h)) as Lh by (destruct (hd h); [contradiction | rewrite nlen_cons; lia]).
  destruct (wqf_pre _ _ _ _ _ _ _ _ _ _ _ _ H) as (_ & E2 & E3 & _ & (t & E)).
  { rewrite !nlen_app, L0. change (nlen [47; 47]) with 2. lia. }
  exists h. split; [exact Hne|]. split; [exact Ho|].
  apply (piece_mid u ((ser0 ++ [47; 47]) ++ x) (hd h) (ptext pt ++ P ++ t)); [|exact E2 | exact E3].
  rewrite E, <- !app_assoc. reflexivity.
Qed.

(* fields of the copying arms *)
Lemma fragment_only_copy b l u : wf_b b = true -> fragment_only b l = POk u -> hosti u = hosti b /\ CopyB b u.
Proof.
  intros W. unfold fragment_only. cbv zeta. intros H. pb H fs Hfs. inversion H; subst u.
  split; [reflexivity|]. split; [reflexivity|]. split; [reflexivity|]. split; [reflexivity|]. cbn [ser].
  rewrite parse_fragment_text, <- app_assoc.
  eapply agree_pre_trans; [apply (bf_pre b W)|]. apply agree_pre_app_le.
  exact (pre_len _ _ _ (bf_pre b W) (path_start_le_len b W)).
Qed.

Lemma wqf_copy st b s rem u : wf_b b = true -> agree_pre (path_start b) (ser b) s -> path_start b <= nlen s ->
  with_query_and_fragment ovr CUrlParser st (scheme_end b) (username_end b) (host_start b) (host_end b)
    (hosti b) (port b) (path_start b) s rem = POk u ->
  hosti u = hosti b /\ (scheme_end b + 3 < path_start b -> CopyB b u).
Proof.
  intros W Hpre Hl H. split; [exact (proj2 (proj2 (wqf_fields _ _ _ _ _ _ _ _ _ _ _ _ _ H)))|].
  intros L. destruct (wqf_pre _ _ _ _ _ _ _ _ _ _ _ _ H L) as (E1 & E2 & E3 & _ & (t & E)).
  split; [exact E1|]. split; [exact E2|]. split; [exact E3|]. rewrite E.
  eapply agree_pre_trans; [exact Hpre | apply agree_pre_app_le; exact Hl].
Qed.

Theorem parse_relative_host st b l u : wf_b b = true -> host_text_ok b -> st_is_file st = false ->
  nnth (ser b) (scheme_end b + 1) = Some 47 ->
  parse_relative dbg hp hpo hd ovr CUrlParser st b l = POk u ->
  hosti u = HI_None \/ Fresh (st_is_special st) u \/ (hosti b <> HI_None /\ CopyB b u).
Proof.
  intros W HT Hnf Hs.
  assert (forall u0, hosti u0 = hosti b /\ (scheme_end b + 3 < path_start b -> CopyB b u0) ->
            hosti u0 = HI_None \/ Fresh (st_is_special st) u0 \/ (hosti b <> HI_None /\ CopyB b u0)) as Hcopy.
  { intros u0 [E C]. destruct (hosti b) eqn:Eh; [left; exact E | right; right ..];
      (split; [discriminate|]); apply C;
      (assert (hosti b <> HI_None) as Hn by (rewrite Eh; discriminate));
      destruct (has_host_bounds b W HT Hn) as (B1 & B2 & B3 & B4); lia. }
  destruct (wf_scheme_facts b W) as (S1 & S2 & S3). pose proof (path_start_le_len b W) as PL. intros H.
  destruct (parse_relative_case dbg hp hpo hd ovr CUrlParser st b l u H)
    as [-> | s qs fs Hq -> | Hf | x Ha | r s hh rem Hp Hw | s1 x s3 hh rem He Hs1 Hp Hw].
  - apply Hcopy. split; [reflexivity|]. intros _.
    split; [reflexivity|]. split; [reflexivity|]. split; [reflexivity|]. exact (bf_pre b W).
  - apply Hcopy. split; [reflexivity|]. intros _.
    split; [reflexivity|]. split; [reflexivity|]. split; [reflexivity|]. cbn [ser url_with].
    destruct (parse_query_and_fragment_app _ _ _ _ _ _ _ _ _ Hq) as (t & -> & _).
    eapply agree_pre_trans; [apply (bq_pre b W)|]. apply agree_pre_app_le.
    exact (pre_len _ _ _ (bq_pre b W) PL).
  - apply Hcopy. destruct (fragment_only_copy b l u W Hf) as [E C]. split; [exact E | intros _; exact C].
  - assert (nlen (nfirstn (scheme_end b + 1) (ser b)) = scheme_end b + 1) as L1 by (apply nlen_nfirstn; lia).
    destruct (ads_host _ st _ _ x u L1 Ha) as [A|A]; [left; exact A | right; left; exact A].
  - destruct (rel_slash_front dbg hp hpo st b r s hh rem W Hnf Hp) as (A & B & _).
    apply Hcopy. apply (wqf_copy st b s rem u W A); [lia | exact Hw].
  - destruct (rel_path_front dbg hp hpo st b l s1 x s3 hh rem W Hnf Hs He Hs1 Hp) as (A & B & _).
    apply Hcopy. apply (wqf_copy st b s3 rem u W A); [lia | exact Hw].
Qed.


Lemma pfh_origin ser l ser1 flag hi rem :
  parse_file_host hp hd ser l = POk (ser1, flag, hi, rem) ->
  (ser1 = ser /\ hi = HI_None)
  \/ (exists h s, hp s = Ok h /\ ser1 = ser ++ hd h /\ hi = hi_of_host h /\ flag = true).
Proof.
  unfold parse_file_host. destruct (file_host l) as [t rm].
  destruct t as [|c t']; [intros H; inversion H; subst; left; split; reflexivity|].
  intros H. pb H h Hh. apply of_result_ok in Hh.
  assert (POk (ser ++ hd h, true, hi_of_host h, rm) = POk (ser1, flag, hi, rem) ->
          (ser1 = ser /\ hi = HI_None)
          \/ (exists h0 s, hp s = Ok h0 /\ ser1 = ser ++ hd h0 /\ hi = hi_of_host h0 /\ flag = true)) as Hgen.
  { intros X. inversion X; subst. right. exists h, (c :: t'). split; [exact Hh|]. repeat split. }
  destruct h as [d|a|q]; try exact (Hgen H).
  destruct (list_eqb d s_localhost); [inversion H; subst; left; split; reflexivity | exact (Hgen H)].
Qed.

Lemma fresh_true_of_hp u h s0 Z : hp s0 = Ok h -> ser u = (s_file_css ++ hd h) ++ Z ->
  host_start u = 7 -> host_end u = nlen (s_file_css ++ hd h) -> hosti u = hi_of_host h ->
  hosti u = HI_None \/ Fresh true u.
Proof.
  intros Eh E E1 E2 E3. destruct (host_eq_dec_empty h) as [->|Hne]; [left; rewrite E3; reflexivity|].
  right. exists h. split; [exact Hne|]. split; [exists s0; exact Eh|].
  apply (piece_mid u s_file_css (hd h) Z); [rewrite E, <- !app_assoc; reflexivity | exact E1|].
  rewrite E2, nlen_app. reflexivity.
Qed.

Definition FileRes (base_file : option url) (u : url) : Prop :=
  hosti u = HI_None
  \/ (b_scheme u = s_file
      /\ (Fresh true u \/ exists b, base_file = Some b /\ hosti b <> HI_None /\ ht u = ht b)).

Theorem parse_file_host_origin st base_file l u :
  match base_file with Some b => wf_b b = true /\ host_text_ok b /\ b_scheme b = s_file | None => True end ->
  parse_file dbg hp hd ovr CUrlParser st base_file l = POk u -> FileRes base_file u.
Proof.
  intros Hb H.
  assert (forall b u0, base_file = Some b -> hosti u0 = hosti b /\ (scheme_end b + 3 < path_start b -> CopyB b u0) ->
            FileRes base_file u0) as Hcopy.
  { intros b u0 Eb [E C]. rewrite Eb in Hb. destruct Hb as (W & HT & Es).
    destruct (hosti b) eqn:Eh; [left; exact E | right ..];
      (assert (hosti b <> HI_None) as Hn by (rewrite Eh; discriminate));
      destruct (has_host_bounds b W HT Hn) as (B1 & B2 & B3 & B4);
      destruct (copyb_ht b u0 W HT Hn (C ltac:(lia))) as [H1 H2];
      (split; [rewrite H2; exact Es | right; exists b; split; [exact Eb | split; [exact Hn | exact H1]]]). }
  destruct (parse_file_case dbg hp hd ovr CUrlParser st base_file l u H)
    as [an ser1 flag hi remaining ser2 hh rem2 ser4 qs fs Ha Hb2 Hc
       | ser1 he hi ser2 hh rem ser3 qs fs F Hp Hq ->
       | b Eb -> | b s qs fs Eb Hq -> | b Eb Hf | b s1 s2 hh rem Eb Hs1 Hp Hw
       | s2 hh rem s3 qs fs Hp Hq ->].
  - (* "//" : file host *)
    destruct (pfh_origin _ _ _ _ _ _ Ha) as [(-> & ->)|(h & s0 & Eh & -> & -> & ->)].
    + left. destruct Hc as [(_ & _ & ->)|(_ & _ & ->)]; reflexivity.
    + destruct (parse_path_start_clean dbg CUrlParser STFile _ _ _ _ _ _ Hb2) as (P & -> & _).
      destruct Hc as [(_ & _ & ->)|(_ & Hc & ->)]; [left; reflexivity|].
      destruct (parse_query_and_fragment_app _ _ _ _ _ _ _ _ _ Hc) as (t & -> & _).
      destruct (fresh_true_of_hp (file_url (((s_file_css ++ hd h) ++ P) ++ t) 7 (nlen (s_file_css ++ hd h)) (hi_of_host h) qs fs)
                  h s0 (P ++ t) Eh) as [A|A]; try reflexivity.
      { cbn [ser file_url]. rewrite <- !app_assoc. reflexivity. }
      { left. exact A. }
      right. split; [|left; exact A]. unfold b_scheme, file_url. cbn [ser scheme_end]. rewrite <- !app_assoc. reflexivity.
  - (* a single slash *)
    destruct F as [|b seg _ _ _|b hs Eb Ehs]; [left; reflexivity | left; reflexivity|].
    rewrite Eb in Hb. destruct Hb as (W & HT & Es).
    rewrite (host_str_ht b W) in Ehs.
    destruct (has_host b) eqn:Ehh; [|discriminate Ehs]. inversion Ehs as [Ehs1].
    pose proof (pinvq_parse_path dbg (nlen (s_file_css ++ hs)) (s_file_css ++ hs) eq_refl _ _ _ _ _ _ _ _ Hp
                  (pinvq_start (s_file_css ++ hs))) as I2.
    destruct (pinvq_split _ _ I2) as (P & -> & _).
    destruct (parse_query_and_fragment_app _ _ _ _ _ _ _ _ _ Hq) as (t & -> & _).
    right. split; [unfold b_scheme, file_url; cbn [ser scheme_end]; rewrite <- !app_assoc; reflexivity|].
    right. exists b. split; [exact Eb|]. split; [unfold has_host in Ehh; intros X; rewrite X in Ehh; discriminate|].
    rewrite Ehs1.
    apply (piece_mid _ s_file_css hs (P ++ t)); [cbn [ser file_url]; rewrite <- !app_assoc; reflexivity | reflexivity|].
    cbn [host_end file_url]. rewrite nlen_app. reflexivity.
  - pose proof Hb as Hb'. rewrite Eb in Hb'. destruct Hb' as (W & HT & Es).
    apply (Hcopy b _ Eb). split; [reflexivity|]. intros _.
    split; [reflexivity|]. split; [reflexivity|]. split; [reflexivity|]. exact (bf_pre b W).
  - pose proof Hb as Hb'. rewrite Eb in Hb'. destruct Hb' as (W & HT & Es).
    apply (Hcopy b _ Eb). split; [reflexivity|]. intros _.
    split; [reflexivity|]. split; [reflexivity|]. split; [reflexivity|]. cbn [ser url_with].
    destruct (parse_query_and_fragment_app _ _ _ _ _ _ _ _ _ Hq) as (t & -> & _).
    eapply agree_pre_trans; [apply (bq_pre b W)|]. apply agree_pre_app_le.
    exact (pre_len _ _ _ (bq_pre b W) (path_start_le_len b W)).
  - pose proof Hb as Hb'. rewrite Eb in Hb'. destruct Hb' as (W & HT & Es).
    apply (Hcopy b _ Eb). destruct (fragment_only_copy b l u W Hf) as [E C]. split; [exact E | intros _; exact C].
  - pose proof Hb as Hb'. rewrite Eb in Hb'. destruct Hb' as (W & HT & Es).
    destruct (file_shorten_front dbg hp hpo b l s1 s2 hh rem W Hs1 Hp) as (A & B & _).
    apply (Hcopy b _ Eb). apply (wqf_copy STFile b s2 rem u W A); [lia | exact Hw].
  - left. reflexivity.
Qed.

End Arms.

Lemma scheme_type_file s : scheme_type_of s = STFile -> s = s_file.
Proof.
  unfold scheme_type_of.
  destruct (list_eqb s s_http || list_eqb s s_https || list_eqb s s_ws || list_eqb s s_wss || list_eqb s s_ftp); [discriminate|].
  destruct (list_eqb s s_file) eqn:E; [|discriminate]. intros _. apply list_eqb_spec. exact E.
Qed.

Section Top.
Variable dbg : bool.
Variable hp hpo : list N -> result host.
Variable hd : host -> list N.
Variable ovr : option (list N -> list N).
Hypothesis HW : HostWf hp hpo hd.

Definition HostRes (base : option url) (u : url) : Prop :=
  hosti u = HI_None \/ Fresh hp hpo hd (spb u) u
  \/ exists b, base = Some b /\ hosti b <> HI_None /\ ht u = ht b /\ spb u = spb b.

Lemma copy_res b u : wf_b b = true -> host_text_ok b -> hosti u = hosti b /\ CopyB b u -> HostRes (Some b) u.
Proof.
  intros W HT [E C]. destruct (hosti b) eqn:Eh; [left; exact E | right; right ..];
    (assert (hosti b <> HI_None) as Hn by (rewrite Eh; discriminate));
    destruct (copyb_ht b u W HT Hn C) as [H1 H2];
    (exists b; split; [reflexivity | split; [exact Hn | split; [exact H1 | unfold spb; rewrite H2; reflexivity]]]).
Qed.

Lemma relative_res st b l u : wf_b b = true -> host_text_ok b -> st_is_file st = false ->
  nnth (ser b) (scheme_end b + 1) = Some 47 -> st_is_special st = spb b ->
  parse_relative dbg hp hpo hd ovr CUrlParser st b l = POk u -> HostRes (Some b) u.
Proof.
  intros W HT Hnf Hs Est H.
  destruct (parse_relative_bk dbg hp hpo hd ovr st b l u W Hs Hnf H) as (K1 & K2 & _).
  assert (spb u = spb b) as Esp by (unfold spb, b_scheme; rewrite K1, K2; reflexivity).
  destruct (parse_relative_host dbg hp hpo hd ovr HW st b l u W HT Hnf Hs H) as [A|[A|[Hn C]]].
  - left. exact A.
  - right. left. rewrite Esp, <- Est. exact A.
  - right. right. destruct (copyb_ht b u W HT Hn C) as [H1 _].
    exists b. split; [reflexivity|]. split; [exact Hn|]. split; [exact H1 | exact Esp].
Qed.

Lemma file_res (base : option url) base_file l st u :
  match base with Some b => wf_b b = true /\ host_text_ok b | None => True end ->
  (base_file = None \/ exists b, base = Some b /\ base_file = Some b /\ b_scheme b = s_file) ->
  parse_file dbg hp hd ovr CUrlParser st base_file l = POk u -> HostRes base u.
Proof.
  intros Hb Hbf H.
  assert (match base_file with Some b => wf_b b = true /\ host_text_ok b /\ b_scheme b = s_file | None => True end) as Hbf2.
  { destruct Hbf as [->|(b & E1 & -> & E3)]; [exact I|]. rewrite E1 in Hb. destruct Hb as [W HT]. split; [exact W|]. split; [exact HT | exact E3]. }
  destruct (parse_file_host_origin dbg hp hpo hd ovr st base_file l u Hbf2 H) as [A|(Es & [A|(b & Eb & Hn & Eh)])].
  - left. exact A.
  - right. left. assert (spb u = true) as -> by (unfold spb; rewrite Es; reflexivity). exact A.
  - right. right. destruct Hbf as [E0|(b0 & E1 & E2 & E3)]; [rewrite E0 in Eb; discriminate|].
    rewrite E2 in Eb. inversion Eb; subst b0. exists b. split; [exact E1|]. split; [exact Hn|]. split; [exact Eh|].
    unfold spb. rewrite Es, E3. reflexivity.
Qed.

Theorem parse_url_host base input u :
  match base with Some b => wf_b b = true /\ host_text_ok b /\ bk b | None => True end ->
  parse_url dbg hp hpo hd ovr base input = POk u -> HostRes base u.
Proof.
  intros Hb H.
  destruct (parse_url_case dbg hp hpo hd ovr base input u H)
    as [b l -> Hf | bf l Hbf Hf | sch l0 l _ Est Ha | b l -> Ef Hc Hr | sch l _ Est Hn].
  - destruct Hb as (W & HT & K). exact (copy_res b u W HT (fragment_only_copy b l u W Hf)).
  - eapply (file_res base bf); [destruct base as [b|]; [tauto | exact I] | | exact Hf].
    destruct bf as [b|]; [|left; reflexivity]. destruct Hbf as [-> Eb].
    right. exists b. split; [reflexivity|]. split; [reflexivity|]. exact (scheme_type_file _ Eb).
  - assert (nlen (sch ++ [58]) = nlen sch + 1) as L0 by (rewrite nlen_app; reflexivity).
    destruct (ads_bk dbg hp hpo hd ovr _ _ _ l u L0 Ha) as (A & B & _).
    assert (spb u = true) as Esp by (unfold spb, b_scheme; rewrite A, B, nfirstn_app_exact, Est; reflexivity).
    destruct (ads_host dbg hp hpo hd ovr HW _ _ _ _ l u L0 Ha) as [C|C]; [left; exact C|].
    right. left. rewrite Esp. exact C.
  - destruct Hb as (W & HT & K). apply (relative_res _ b l u W HT Ef); [|reflexivity | exact Hr].
    destruct Hc as [Hc|Hc]; [apply K; rewrite Hc; reflexivity|].
    rewrite (cannot_be_a_base_eval b W) in Hc. injection Hc as Hc. apply negb_false_iff, byte_eqb_nnth in Hc. exact Hc.
  - assert (nlen (sch ++ [58]) = nlen sch + 1) as L0 by (rewrite nlen_app; reflexivity).
    destruct (pns_bk dbg hp hpo hd ovr _ _ _ l u L0 Hn) as (K1 & K2).
    assert (spb u = false) as Esp by (unfold spb, b_scheme; rewrite K1, K2, nfirstn_app_exact, Est; reflexivity).
    destruct (parse_non_special_case dbg hp hpo hd ovr CUrlParser STNotSpecial (nlen sch) (sch ++ [58]) l u Hn)
      as [rm _ Ha | r s hh rem _ _ _ Hw | _ _ Hw].
    + destruct (ads_host dbg hp hpo hd ovr HW _ _ _ _ rm u L0 Ha) as [C|C]; [left; exact C|].
      right. left. rewrite Esp. exact C.
    + left. exact (proj2 (proj2 (wqf_fields _ _ _ _ _ _ _ _ _ _ _ _ _ Hw))).
    + left. exact (proj2 (proj2 (wqf_fields _ _ _ _ _ _ _ _ _ _ _ _ _ Hw))).
Qed.

End Top.
