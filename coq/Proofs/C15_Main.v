(* Proofs/C15_Main.v - the C15 statements for the String target and the default (UTF-8) encoding. *)
From RU Require Import Base.Prelude Base.Utf8 Base.Utf8Facts Base.Outcome_c15 Gen.Tables
  Model.FormUrlencoded Proofs.C15_Table
  Proofs.C15_Parse Proofs.C15_Bser Proofs.C15_Ser.

(* Serializer::for_suffix(target: String, start) . ops . finish() *)
Definition str_session (target : list N) (start : N) (ops : list ser_op) : outcome (list N) :=
  ser_session (list N) (list N) str_get str_set str_fin target start ops.

(* Histories without clear() and without encoding_override: the encoding stays the default, UTF-8, and what
   is read back is what was appended (ops_effect_append_only).  key_pairs k: what append_key_only(k) adds. *)
Definition key_pairs (k : list N) : pairs := match k with [] => [] | _ => [(k, [])] end.

(* the pairs an operation appends: a key without value reads back with the empty value; the empty key
   writes nothing *)
Definition op_appended (op : ser_op) : pairs :=
  match op with
  | OpAppendPair n v => [(n, v)]
  | OpAppendKeyOnly k => key_pairs k
  | OpExtendPairs l => l
  | OpExtendKeysOnly l => flat_map key_pairs l
  | OpClear => []
  | OpEncodingOverride _ => []
  end.

Definition append_only (ops : list ser_op) : bool :=
  forallb (fun op => match op with OpClear => false | OpEncodingOverride _ => false | _ => true end) ops.

Lemma eff_pair_default n v : usv_list n -> usv_list v -> eff_pair None n v = [(n, v)].
Proof. intros Hn Hv. unfold eff_pair. rewrite !dec_of_default by assumption. reflexivity. Qed.

Lemma eff_key_default k : usv_list k -> eff_key None k = key_pairs k.
Proof.
  intros Hk. unfold eff_key, key_pairs. cbn [fu_encode]. destruct k as [|c r]; [reflexivity|].
  destruct (utf8_encode (c :: r)) eqn:E.
  - apply (proj1 (utf8_encode_nil_iff _)) in E. discriminate.
  - cbn [is_empty]. rewrite dec_of_default by exact Hk. reflexivity.
Qed.

Lemma eff_pairs_default l : Forall (fun p => usv_list (fst p) /\ usv_list (snd p)) l ->
  flat_map (fun p => eff_pair None (fst p) (snd p)) l = l.
Proof.
  induction l as [|[n v] r IH]; intros H; [reflexivity|].
  inversion H as [|? ? [Hn Hv] Hr]; subst. cbn [flat_map fst snd] in *.
  rewrite eff_pair_default by assumption. cbn [app]. f_equal. apply IH. exact Hr.
Qed.

Lemma eff_keys_default l : Forall usv_list l -> flat_map (eff_key None) l = flat_map key_pairs l.
Proof.
  induction l as [|k r IH]; intros H; [reflexivity|].
  inversion H as [|? ? Hk Hr]; subst. cbn [flat_map]. rewrite eff_key_default by exact Hk.
  f_equal. apply IH. exact Hr.
Qed.

Lemma ops_effect_append_only ops : forall old, append_only ops = true -> Forall op_ok ops ->
  ops_effect (None, old) ops = (None, old ++ flat_map op_appended ops).
Proof.
  induction ops as [|op r IH]; intros old Ha Ho.
  - cbn. rewrite app_nil_r. reflexivity.
  - cbn [append_only forallb] in Ha. apply andb_true_iff in Ha. destruct Ha as [Ha1 Ha2].
    inversion Ho as [|? ? Ho1 Ho2]; subst. unfold ops_effect in *. cbn [fold_left flat_map].
    destruct op as [n v|k|l|l| |o]; try discriminate; cbn [op_effect op_appended op_ok] in *.
    + destruct Ho1 as [Hn Hv]. rewrite eff_pair_default by assumption.
      rewrite (IH _ Ha2 Ho2). rewrite <- !app_assoc. reflexivity.
    + rewrite eff_key_default by assumption. rewrite (IH _ Ha2 Ho2). rewrite <- !app_assoc. reflexivity.
    + rewrite eff_pairs_default by assumption. rewrite (IH _ Ha2 Ho2). rewrite <- !app_assoc. reflexivity.
    + rewrite eff_keys_default by assumption. rewrite (IH _ Ha2 Ho2). rewrite <- !app_assoc. reflexivity.
Qed.

Lemma append_only_no_clear ops : append_only ops = true -> has_clear ops = false.
Proof.
  induction ops as [|op r IH]; [reflexivity|]. cbn [append_only forallb has_clear existsb].
  intros H. apply andb_true_iff in H. destruct H as [H1 H2].
  destruct op; try discriminate; cbn [orb]; apply IH; exact H2.
Qed.

(* known class F-C15-1: for_suffix accepts a start_position inside a multi-byte character; a later clear()
   then panics in String::truncate *)
Definition Known_C15_1 (target : list N) (start : N) (ops : list ser_op) : Prop :=
  is_char_boundary target start = false /\ has_clear ops = true.

Lemma not_known_C15_1 target start ops : ~ Known_C15_1 target start ops ->
  is_char_boundary target start = true \/ has_clear ops = false.
Proof.
  unfold Known_C15_1. intros H. destruct (is_char_boundary target start); [left; reflexivity|].
  destruct (has_clear ops); [exfalso; apply H; split; reflexivity | right; reflexivity].
Qed.

(* the class is inhabited and panics: target U+00E9 (bytes C3 A9), start_position 1, clear() *)
Theorem C15_1_refuted : exists target start ops,
  Known_C15_1 target start ops /\ start <= nlen target /\ Forall op_ok ops
  /\ str_session target start ops = Panic T_FORM_SITE_CLEAR_TRUNCATE.
Proof.
  exists [195; 169], 1, [OpClear]. split; [split; reflexivity|]. split; [vm_compute; discriminate|].
  split; [repeat constructor|]. vm_compute. reflexivity.
Qed.

(* the for_suffix theorem for a String target (C15_suffix): C15_Ser.session_ok at the identity lens *)
Theorem str_session_ok target start ops :
  Forall op_ok ops -> start <= nlen target -> ~ Known_C15_1 target start ops ->
  exists result, str_session target start ops = Ok result
    /\ pre start result = pre start target
    /\ parse (suf start result) = Some (snd (ops_effect (None, parse_spec (suf start target)) ops))
    /\ (Forall (fun c => form_alpha c = true) (suf start target) ->
        Forall (fun c => form_alpha c = true) (suf start result)).
Proof.
  intros Ho Hs Hk. apply not_known_C15_1 in Hk.
  destruct (session_ok (list N) (list N) str_get str_set str_fin
              (fun _ _ => eq_refl) (fun _ _ _ => eq_refl) (fun _ => eq_refl) target start ops Ho Hs Hk)
    as (s' & H1 & H2 & H3 & H4 & H5).
  exists s'. repeat split; assumption.
Qed.

(* append-only histories: what is read back is the old pairs followed by the appended ones *)
Theorem str_session_append target start ops :
  Forall op_ok ops -> append_only ops = true -> start <= nlen target ->
  exists result, str_session target start ops = Ok result
    /\ pre start result = pre start target
    /\ (exists old, parse (suf start target) = Some old
                    /\ parse (suf start result) = Some (old ++ flat_map op_appended ops))
    /\ (Forall (fun c => form_alpha c = true) (suf start target) ->
        Forall (fun c => form_alpha c = true) (suf start result)).
Proof.
  intros Ho Ha Hs.
  assert (Hk : ~ Known_C15_1 target start ops).
  { intros [_ Hc]. rewrite (append_only_no_clear ops Ha) in Hc. discriminate. }
  destruct (str_session_ok target start ops Ho Hs Hk) as (r & H1 & H2 & H3 & H4).
  exists r. split; [exact H1|]. split; [exact H2|]. split; [|exact H4].
  exists (parse_spec (suf start target)). split; [apply parse_is_spec|].
  rewrite H3, ops_effect_append_only by assumption. reflexivity.
Qed.

Definition usv_pairs (l : pairs) : Prop := Forall (fun p => usv_list (fst p) /\ usv_list (snd p)) l.

Lemma suf0 s : suf 0 s = s.
Proof. reflexivity. Qed.

(* on the empty String: what an append-only history writes reads back as what it appended *)
Theorem empty_session_append ops : Forall op_ok ops -> append_only ops = true ->
  exists out, str_session [] 0 ops = Ok out /\ parse out = Some (flat_map op_appended ops)
              /\ Forall (fun c => form_alpha c = true) out.
Proof.
  intros Ho Ha.
  destruct (str_session_append [] 0 ops Ho Ha) as (r & H1 & _ & (old & Hold & H3) & H4); [unfold nlen; cbn; lia|].
  rewrite !suf0 in *. rewrite parse_is_spec in Hold. inversion Hold; subst old.
  exists r. split; [exact H1|]. split; [exact H3|]. apply H4. constructor.
Qed.

Theorem serialize_pairs_rt l : usv_pairs l ->
  exists out, serialize_pairs l = Ok out /\ parse out = Some l
              /\ Forall (fun c => form_alpha c = true) out.
Proof.
  intros Hl. destruct (empty_session_append [OpExtendPairs l]) as (out & H1 & H2 & H3);
    [constructor; [exact Hl | constructor] | reflexivity|].
  cbn [flat_map op_appended] in H2. rewrite app_nil_r in H2. exists out. repeat split; assumption.
Qed.

(* the same through a sequence of append_pair calls *)
Theorem append_pairs_rt l : usv_pairs l ->
  exists out, str_session [] 0 (map (fun p => OpAppendPair (fst p) (snd p)) l) = Ok out
              /\ parse out = Some l /\ Forall (fun c => form_alpha c = true) out.
Proof.
  intros Hl. set (ops := map (fun p => OpAppendPair (fst p) (snd p)) l).
  assert (Happ : flat_map op_appended ops = l)
    by (subst ops; clear; induction l as [|[n v] r IH]; [reflexivity | cbn; f_equal; exact IH]).
  destruct (empty_session_append ops) as (out & H1 & H2 & H3).
  - apply Forall_forall. intros op Hin. apply in_map_iff in Hin. destruct Hin as (p & <- & Hp).
    unfold usv_pairs in Hl. rewrite Forall_forall in Hl. exact (Hl p Hp).
  - subst ops. clear. induction l as [|p r IH]; [reflexivity | exact IH].
  - rewrite Happ in H2. exists out. repeat split; assumption.
Qed.

(* every history on an empty String (any mix of operations, any byte-valued overrides) writes only the
   alphabet *)
Theorem str_session_alpha ops : Forall op_ok ops ->
  exists out, str_session [] 0 ops = Ok out /\ Forall (fun c => form_alpha c = true) out.
Proof.
  intros Ho.
  destruct (str_session_ok [] 0 ops Ho) as (r & H1 & _ & _ & H4).
  - unfold nlen. cbn. lia.
  - intros [Hb _]. discriminate.
  - exists r. split; [exact H1|]. rewrite !suf0 in H4. apply H4. constructor.
Qed.

Lemma form_alpha_spec c : form_alpha c = true <->
  (is_alnum c = true \/ In c [42; 45; 46; 95; 43; 37; 38; 61]).
Proof.
  unfold form_alpha, val_alpha, unchanged_spec. cbn [In]. split.
  - intros H. destruct (is_alnum c); [left; reflexivity|]. right. lia.
  - intros [H|H]; [rewrite H; reflexivity|]. destruct (is_alnum c); [reflexivity|]. lia.
Qed.
