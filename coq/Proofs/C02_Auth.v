(* Proofs/C02_Auth.v - class (iii) of DESIGN B.5: URLs with an authority and a non-special scheme,
   parsed without base:   scheme "://" [user [":" pw] "@"] host [":" port] path ["?" q] ["#" f].
   L1: the parser's result has the canonical form below; L3: the canonical form re-parses to the
   same record (same offsets, host kind and port).  Everything after "scheme:" and the slashes
   (userinfo, host, port, path start, query, fragment) is done once for a scheme type of either class
   with authority, the special class (iv) of C02_AuthSp.v included. *)
From RU Require Import Base.Prelude Base.Utf8 Gen.Tables Model.HostT Model.UrlRecord Model.Parser Proofs.ListN
  Proofs.C02_Enc Proofs.C02_Parts Proofs.C02_Opaque Proofs.C02_Path Proofs.C02_PathL1 Proofs.C02_PathSp
  Proofs.C16_RT Proofs.C02_AuthParts.
From RU Require Import Proofs.Decimal.

(* the path of a URL with authority: empty, or "/" seg "/" ... "/" last *)
Definition pth := option (list (list N) * list N).
Definition pth_text (p : pth) : list N := match p with None => [] | Some (segs, last) => path_text segs last end.
Definition pth_ok (p : pth) : Prop :=
  match p with None => True | Some (segs, last) => forallb good_seg segs = true /\ good_seg last = true end.
(* after a special scheme the path is never empty, and '\' is a separator, so no segment holds one *)
Definition pth_ok_st (st : scheme_type) (p : pth) : Prop :=
  if st_is_special st
  then match p with Some (segs, last) => forallb good_seg_sp segs = true /\ good_seg_sp last = true | None => False end
  else pth_ok p.

Lemma pth_ok_st_ok st p : pth_ok_st st p -> pth_ok p.
Proof.
  unfold pth_ok_st. destruct (st_is_special st); [|tauto]. destruct p as [[segs last]|]; [|contradiction].
  intros [Hs Hl]. split; [apply good_segs_sp_good; exact Hs | apply good_seg_sp_good; exact Hl].
Qed.

Definition qh_ok (X : list N) : Prop := match X with [] => True | c :: _ => is_qh c = true /\ is_tnl c = false end.

Lemma qh_tail X : qh_ok X -> tail_ok X.
Proof. destruct X as [|c r]; [tauto|]. cbn [qh_ok tail_ok]. unfold is_qh. intros [H _]. lia. Qed.

Lemma pth_tail p X : qh_ok X -> tail_ok (pth_text p ++ X).
Proof. destruct p as [[segs last]|]; [intros _; reflexivity | exact (qh_tail X)]. Qed.

Section PathStart.
Variable dbg : bool.
Notation loop := (parse_path_loop dbg CUrlParser STNotSpecial).

Lemma loop_nil_empty ps ser hh : loop ps [] ser (nlen ser) [] hh = POk (ser, hh, []).
Proof.
  cbn [parse_path_loop push_pending].
  rewrite (finish_plain dbg ps ser (nlen ser) false hh []); [reflexivity | | reflexivity | reflexivity].
  rewrite slice_o_some by lia. rewrite N.sub_diag. reflexivity.
Qed.

Lemma loop_first_slash ps l : forall r ser hh, inp_next l = Some (47, r) ->
  loop ps l ser (nlen ser) [] hh = loop ps r (ser ++ [47]) (nlen (ser ++ [47])) [] hh.
Proof.
  induction l as [|c t IH]; intros r ser hh H; [discriminate|].
  destruct (is_tnl c) eqn:Et.
  - rewrite inp_next_tnl in H by exact Et. rewrite loop_cons_tnl by exact Et. cbn [push_pending]. exact (IH _ _ _ H).
  - rewrite inp_next_cons in H by exact Et. inversion H; subst. rewrite loop_cons_slash. cbn [push_pending].
    rewrite (finish_plain dbg ps (ser ++ [47]) (nlen ser) true hh []); [reflexivity | | reflexivity | reflexivity].
    rewrite nlen_app. replace (nlen ser + nlen [47] - 1) with (nlen ser) by (unfold nlen; cbn [length]; lia).
    rewrite <- (app_nil_l [47]). replace (nlen ser) with (nlen ser + nlen []) at 2 by (rewrite nlen_nil; lia).
    apply slice_mid.
Qed.

(* L1: the path start state, non-special scheme, after an authority *)
Theorem pps_out ser l hh s3 hh' rem3 : usv_list l -> pe_ok l ->
  parse_path_start dbg CUrlParser STNotSpecial hh ser l = POk (s3, hh', rem3) ->
  exists p, pth_ok p /\ s3 = ser ++ pth_text p /\ usv_list rem3 /\ qh_ok rem3.
Proof.
  intros Hu Hpe. unfold parse_path_start, inp_split_first. cbn [st_is_special].
  destruct l as [|c r].
  - cbn [inp_next drop_while]. unfold parse_path. rewrite loop_nil_empty. intros H. inversion H; subst.
    exists None. cbn [pth_ok pth_text]. rewrite app_nil_r. repeat split; constructor.
  - destruct Hpe as [Ht He]. rewrite inp_next_cons by exact Ht.
    destruct ((c =? 63) || (c =? 35)) eqn:Eq.
    + intros H. inversion H; subst. exists None. cbn [pth_ok pth_text]. rewrite app_nil_r.
      repeat split; try assumption. 
    + assert (forall l0 s hh1 rm, usv_list l0 ->
                loop (nlen ser) l0 (ser ++ [47]) (nlen (ser ++ [47])) [] hh = POk (s, hh1, rm) ->
                exists p, pth_ok p /\ s = ser ++ pth_text p /\ usv_list rm /\ qh_ok rm) as G.
      { intros l0 s hh1 rm Hu0 Hl.
        destruct (parse_path_ns ser dbg l0 hh s hh1 rm Hu0 Hl) as (segs & last & -> & Hs & Hl' & _ & ->).
        exists (Some (segs, last)). repeat split; try assumption; [apply usv_cbb_rest; exact Hu0 | apply cbb_rest_head]. }
      apply usv_cons in Hu. destruct Hu as [Hc Hr].
      destruct (c =? 47) eqn:E47.
      * apply N.eqb_eq in E47. subst c. unfold parse_path.
        rewrite (loop_first_slash (nlen ser) (47 :: r) r ser hh) by (apply inp_next_cons; reflexivity).
        apply (G r). exact Hr.
      * unfold parse_path. apply (G (c :: r)). apply usv_cons. split; assumption.
Qed.

(* L3 *)
Theorem pps_canon ser p X hh : pth_ok p -> qh_ok X ->
  parse_path_start dbg CUrlParser STNotSpecial hh ser (pth_text p ++ X) = POk (ser ++ pth_text p, hh, X).
Proof.
  intros Hp HX. unfold parse_path_start, inp_split_first. cbn [st_is_special].
  destruct p as [[segs last]|]; cbn [pth_text pth_ok] in *.
  - destruct Hp as [Hs Hl]. unfold path_text. cbn [app]. rewrite inp_next_cons by reflexivity.
    replace ((47 =? 63) || (47 =? 35)) with false by reflexivity. replace (47 =? 47) with true by reflexivity.
    unfold parse_path.
    rewrite (loop_first_slash (nlen ser) _ ((segs_text segs ++ last) ++ X) ser hh) by (apply inp_next_cons; reflexivity).
    rewrite <- app_assoc. rewrite (path_loop_canon dbg (nlen ser) segs last X (ser ++ [47]) hh Hs Hl HX).
    rewrite <- !app_assoc. reflexivity.
  - cbn [app]. rewrite app_nil_r. destruct X as [|c r].
    + cbn [inp_next drop_while]. unfold parse_path. apply loop_nil_empty.
    + destruct HX as [Hq Ht]. rewrite inp_next_cons by exact Ht. unfold is_qh in Hq. rewrite Hq. reflexivity.
Qed.

(* L1: the path start state, special scheme *)
Theorem pps_out_sp ser l hh s3 hh' rem3 : usv_list l -> pe_ok l -> ends_with_byte 47 ser = false ->
  parse_path_start dbg CUrlParser STSpecialNotFile hh ser l = POk (s3, hh', rem3) ->
  exists segs last, forallb good_seg_sp segs = true /\ good_seg_sp last = true
                    /\ s3 = ser ++ path_text segs last /\ usv_list rem3 /\ qh_ok rem3.
Proof.
  intros Hu Hpe Hends. unfold parse_path_start, inp_split_first. cbn [st_is_special]. rewrite Hends. cbn [negb].
  assert (forall l0 s hh1 rm, usv_list l0 ->
            parse_path_loop dbg CUrlParser STSpecialNotFile (nlen ser) l0 (ser ++ [47]) (nlen (ser ++ [47])) [] hh = POk (s, hh1, rm) ->
            exists segs last, forallb good_seg_sp segs = true /\ good_seg_sp last = true
                              /\ s = ser ++ path_text segs last /\ usv_list rm /\ qh_ok rm) as G.
  { intros l0 s hh1 rm Hu0 Hl.
    destruct (parse_path_sp ser dbg l0 hh s hh1 rm Hu0 Hl) as (segs & last & -> & Hs & Hl' & _ & ->).
    exists segs, last. repeat split; try assumption; [apply usv_cbb_rest; exact Hu0 | apply cbb_rest_head]. }
  destruct l as [|c r].
  - cbn [inp_next drop_while]. unfold parse_path. apply G. constructor.
  - destruct Hpe as [Ht He]. rewrite inp_next_cons by exact Ht.
    apply usv_cons in Hu. destruct Hu as [Hc Hr].
    destruct (is_slash_or_bslash c); unfold parse_path; apply G; [exact Hr | apply usv_cons; split; assumption].
Qed.

(* L3 *)
Theorem pps_canon_sp ser segs last X hh : forallb good_seg_sp segs = true -> good_seg_sp last = true -> qh_ok X ->
  ends_with_byte 47 ser = false ->
  parse_path_start dbg CUrlParser STSpecialNotFile hh ser (path_text segs last ++ X)
  = POk (ser ++ path_text segs last, hh, X).
Proof.
  intros Hs Hl HX Hends. unfold parse_path_start, inp_split_first. cbn [st_is_special]. rewrite Hends. cbn [negb].
  unfold path_text. cbn [app]. rewrite inp_next_cons by reflexivity.
  replace (is_slash_or_bslash 47) with true by reflexivity. unfold parse_path.
  rewrite <- app_assoc. rewrite (path_loop_canon_sp dbg (nlen ser) segs last X (ser ++ [47]) hh Hs Hl HX).
  rewrite <- !app_assoc. reflexivity.
Qed.

(* the two classes together *)
Theorem pps_out_st st ser l hh s3 hh' rem3 : st_is_file st = false -> usv_list l -> pe_ok l ->
  (st_is_special st = true -> ends_with_byte 47 ser = false) ->
  parse_path_start dbg CUrlParser st hh ser l = POk (s3, hh', rem3) ->
  exists p, pth_ok_st st p /\ s3 = ser ++ pth_text p /\ usv_list rem3 /\ qh_ok rem3.
Proof.
  intros Hnf Hu Hpe He H. destruct st; [discriminate | | exact (pps_out ser l hh s3 hh' rem3 Hu Hpe H)].
  destruct (pps_out_sp ser l hh s3 hh' rem3 Hu Hpe (He eq_refl) H) as (segs & last & Hs & Hl & R).
  exists (Some (segs, last)). split; [split; assumption | exact R].
Qed.

Theorem pps_canon_st st ser p X hh : st_is_file st = false -> pth_ok_st st p -> qh_ok X ->
  (st_is_special st = true -> ends_with_byte 47 ser = false) ->
  parse_path_start dbg CUrlParser st hh ser (pth_text p ++ X) = POk (ser ++ pth_text p, hh, X).
Proof.
  intros Hnf Hp HX He. destruct st; [discriminate | | exact (pps_canon ser p X hh Hp HX)].
  destruct p as [[segs last]|]; [|contradiction]. destruct Hp as [Hs Hl].
  exact (pps_canon_sp ser segs last X hh Hs Hl HX (He eq_refl)).
Qed.

End PathStart.

(* with_query_and_fragment after an authority: no marker handling *)
Lemma wqf_auth ovr st se ue hs he hi port ps ser rem : se + 3 <= ps ->
  nfirstn 3 (nskipn se ser) = [58; 47; 47] ->
  with_query_and_fragment ovr CUrlParser st se ue hs he hi port ps ser rem
  = (' (s2, qs, fs) <~ parse_query_and_fragment ovr CUrlParser st se ser rem ;;
     POk (mkUrl s2 se ue hs he hi port ps qs fs)).
Proof.
  intros Hle H3. unfold with_query_and_fragment.
  replace (ps =? se + 1) with false by lia.
  destruct (ps =? se + 3) eqn:E3.
  - apply N.eqb_eq in E3. replace (ps - se) with 3 by lia. rewrite H3. reflexivity.
  - reflexivity.
Qed.

Lemma split_prefix_str_usv pfx : forall l r, usv_list l -> inp_split_prefix_str pfx l = Some r -> usv_list r.
Proof.
  induction pfx as [|c pfx IH]; intros l r Hu H; cbn [inp_split_prefix_str] in H; [inversion H; subst; exact Hu|].
  destruct (inp_next l) as [[d t]|] eqn:En; [|discriminate]. destruct (d =? c); [|discriminate].
  exact (IH t r (inp_next_usv l d t Hu En) H).
Qed.

Section Auth.
Variable dbg : bool.
Variable hp hpo : list N -> result host.
Variable hd : host -> list N.
Hypothesis HOK : HostRT hp hpo hd.
Hypothesis HAb : host_above hp hpo hd.

Definition auth_front (sch : list N) (ui : uinfo) (h : host) (pt : option N) : list N :=
  (sch ++ [58; 47; 47]) ++ ui_text ui ++ hd h ++ port_text pt.
Definition auth_pre sch ui h pt (p : pth) : list N := auth_front sch ui h pt ++ pth_text p.
Definition auth_ser sch ui h pt p (q f : option (list N)) : list N := auth_pre sch ui h pt p ++ qf_text q f.
Definition auth_url sch ui h pt p q f : url :=
  let a := nlen sch + 3 in
  mkUrl (auth_ser sch ui h pt p q f) (nlen sch) (a + ui_ulen ui) (a + nlen (ui_text ui))
        (a + nlen (ui_text ui) + nlen (hd h)) (hi_of_host h) pt (nlen (auth_front sch ui h pt))
        (qf_qs (nlen (auth_pre sch ui h pt p)) q) (qf_fs (nlen (auth_pre sch ui h pt p)) q f).

Record auth_ok (st : scheme_type) sch ui h pt (p : pth) q f : Prop := mk_auth_ok {
  ak_sch : scheme_canon sch = true;
  ak_st : scheme_type_of sch = st;
  ak_ui : ui_ok ui;
  ak_h : host_ok hp hpo hd st h;
  ak_emp : h = HDomain [] -> ui = UNone /\ pt = None;
  ak_pt : port_ok (default_port sch) pt;
  ak_p : pth_ok p;
  ak_q : opt_clean (query_set st) q;
  ak_f : opt_clean T_FRAGMENT f;
  ak_b : nlen (auth_front sch ui h pt) <= U32_MAX_P;
  ak_bq : opt_le (qf_qs (nlen (auth_pre sch ui h pt p)) q) U32_MAX_P;
  ak_bf : opt_le (qf_fs (nlen (auth_pre sch ui h pt p)) q f) U32_MAX_P
}.

Lemma front_eq sch ui h pt :
  (((sch ++ [58]) ++ [47; 47]) ++ ui_text ui) ++ hd h ++ port_text pt = auth_front sch ui h pt.
Proof. unfold auth_front. rewrite <- !app_assoc. reflexivity. Qed.

Lemma front_sch sch ui h pt X : nfirstn (nlen sch) (auth_front sch ui h pt ++ X) = sch.
Proof. unfold auth_front. rewrite <- !app_assoc. apply nfirstn_app_len. Qed.

Lemma front_css sch ui h pt X : nfirstn 3 (nskipn (nlen sch) (auth_front sch ui h pt ++ X)) = [58; 47; 47].
Proof. unfold auth_front. rewrite <- !app_assoc. rewrite nskipn_app_len. reflexivity. Qed.

Lemma front_len sch ui h pt : nlen (auth_front sch ui h pt) = nlen sch + 3 + nlen (ui_text ui) + nlen (hd h) + nlen (port_text pt).
Proof. unfold auth_front. rewrite !nlen_app. unfold nlen at 2. cbn [length]. lia. Qed.

(* what precedes the path of a special URL ends with the host or the port, never with '/' *)
Lemma front_not_slash_st st sch ui h pt : host_ok hp hpo hd st h -> st_is_special st = true ->
  ends_with_byte 47 (auth_front sch ui h pt) = false.
Proof.
  intros [[_ E]|(_ & Ht & _)] Hsp; [congruence|]. unfold auth_front. destruct pt as [p|]; cbn [port_text].
  - rewrite !app_assoc. apply decimal_last.
  - rewrite app_nil_r. rewrite app_assoc. apply host_text_last. exact Ht.
Qed.

Lemma ui_text_nil ui : nlen (ui_text ui) = 0 -> ui = UNone.
Proof. destruct ui as [|u|u p]; [reflexivity| |]; cbn [ui_text]; intros H; exfalso; len_lia. Qed.

Lemma ui_ulen_le ui : ui_ulen ui <= nlen (ui_text ui).
Proof. destruct ui as [|u|u p]; cbn [ui_text ui_ulen]; len_lia. Qed.

Lemma hi_none h : hi_eqb (hi_of_host h) HI_None = true -> h = HDomain [].
Proof. destruct h as [[|d0 d]|a|pcs]; cbn; congruence. Qed.

Lemma default_port_ns sch : scheme_type_of sch = STNotSpecial -> default_port sch = None.
Proof.
  unfold scheme_type_of, default_port.
  destruct (list_eqb sch s_http); [discriminate|]. destruct (list_eqb sch s_https); [discriminate|].
  destruct (list_eqb sch s_ws); [discriminate|]. destruct (list_eqb sch s_wss); [discriminate|].
  destruct (list_eqb sch s_ftp); [discriminate|]. reflexivity.
Qed.

Section WithOvr.
Variable ovr : option (list N -> list N).

(* the query state behind an authority and a path when the query is encoded as UTF-8 (always so for a non-special scheme) *)
Lemma qf_spec_auth st sch : query_enc ovr sch = utf8_encode -> forall ui h pt p, qf_spec ovr st (nlen sch) (auth_pre sch ui h pt p).
Proof. intros He ui h pt p. apply qf_spec_utf8. unfold auth_pre. rewrite <- app_assoc, front_sch. exact He. Qed.

(* L1: everything after "scheme:" and the slashes, for a scheme of either class with authority, given what the
   query state writes *)
Theorem ads_out_st st sch l u : scheme_canon sch = true -> scheme_type_of sch = st -> st_is_file st = false ->
  (forall ui h pt p, qf_spec ovr st (nlen sch) (auth_pre sch ui h pt p)) -> usv_list l ->
  after_double_slash dbg hp hpo hd ovr CUrlParser st (nlen sch) (sch ++ [58]) l = POk u ->
  exists ui h pt p q f, auth_ok st sch ui h pt p q f /\ pth_ok_st st p /\ u = auth_url sch ui h pt p q f.
Proof.
  intros Hsc Hst Hnf Henc Hu. unfold after_double_slash.
  destruct (parse_userinfo st ((sch ++ [58]) ++ [47; 47]) l) as [[[ser1 ue] rem]| |] eqn:E1; cbn [pbind]; try discriminate.
  destruct (parse_userinfo_out _ _ _ _ _ _ Hu E1) as (ui & Hui & -> & -> & Hur). clear E1.
  destruct (to_u32 (nlen (((sch ++ [58]) ++ [47; 47]) ++ ui_text ui))) as [hs| |] eqn:Eu; cbn [pbind]; try discriminate.
  apply to_u32_inv in Eu. destruct Eu as [-> Hb1].
  destruct (parse_host_and_port hp hpo hd CUrlParser st (nlen sch) (((sch ++ [58]) ++ [47; 47]) ++ ui_text ui) rem)
    as [[[[[ser2 he] hi] port] rem2]| |] eqn:E2; cbn [pbind]; try discriminate.
  destruct (phap_out hp hpo hd HOK HAb st Hnf _ _ _ _ _ _ _ _ Hur E2)
    as (h & Hh & Hpt & Hemp & -> & -> & -> & Hur2 & Hpe). clear E2.
  rewrite front_eq in *.
  destruct (hi_eqb (hi_of_host h) HI_None && negb (nlen ((sch ++ [58]) ++ [47; 47]) =? nlen (((sch ++ [58]) ++ [47; 47]) ++ ui_text ui))) eqn:Ee;
    [discriminate|].
  destruct (to_u32 (nlen (auth_front sch ui h port))) as [ps| |] eqn:Eu; cbn [pbind]; try discriminate.
  apply to_u32_inv in Eu. destruct Eu as [-> Hb2].
  destruct (parse_path_start dbg CUrlParser st true (auth_front sch ui h port) rem2) as [[[s3 hh] rem3]| |] eqn:E3;
    cbn [pbind]; try discriminate.
  destruct (pps_out_st dbg st _ _ _ _ _ _ Hnf Hur2 Hpe (front_not_slash_st st sch ui h port Hh) E3) as (p & Hp & -> & Hur3 & Hq3). clear E3.
  fold (auth_pre sch ui h port p).
  rewrite wqf_auth; [|rewrite front_len; lia | apply front_css].
  destruct (parse_query_and_fragment ovr CUrlParser st (nlen sch) (auth_pre sch ui h port p) rem3)
    as [[[s4 qs] fs]| |] eqn:E4; cbn [pbind]; try discriminate.
  destruct (Henc ui h port p rem3 s4 qs fs Hur3 E4) as (q & f & -> & -> & -> & Bq & Bf & Cq & Cf).
  intros H. inversion H; subst u. clear H.
  exists ui, h, port, p, q, f. split; [|split; [exact Hp|]].
  - constructor; try assumption.
    + intros E. split; [|exact (Hemp E)]. subst h. cbn [hi_of_host hi_eqb andb] in Ee. apply negb_false_iff in Ee.
      apply N.eqb_eq in Ee. apply ui_text_nil. rewrite !nlen_app in Ee. lia.
    + replace (nfirstn (nlen sch) ((((sch ++ [58]) ++ [47; 47]) ++ ui_text ui) ++ hd h)) with sch in Hpt; [exact Hpt|].
      rewrite <- !app_assoc. symmetry. apply nfirstn_app_len.
    + exact (pth_ok_st_ok st p Hp).
  - unfold auth_url. f_equal; rewrite ?nlen_app; unfold nlen; cbn [length]; lia.
Qed.

Theorem ads_out sch l u : scheme_canon sch = true -> scheme_type_of sch = STNotSpecial -> usv_list l ->
  after_double_slash dbg hp hpo hd ovr CUrlParser STNotSpecial (nlen sch) (sch ++ [58]) l = POk u ->
  exists ui h pt p q f, auth_ok STNotSpecial sch ui h pt p q f /\ u = auth_url sch ui h pt p q f.
Proof.
  intros Hsc Hst Hu H.
  destruct (ads_out_st STNotSpecial sch l u Hsc Hst eq_refl (qf_spec_auth STNotSpecial sch (query_enc_nonspecial ovr sch Hst)) Hu H)
    as (ui & h & pt & p & q & f & K & _ & E).
  exists ui, h, pt, p, q, f. split; assumption.
Qed.

(* L3 *)
Lemma hi_some h : h <> HDomain [] -> hi_eqb (hi_of_host h) HI_None = false.
Proof. destruct h as [[|d0 d]|a|pcs]; cbn; congruence. Qed.

Lemma digit_plain sp c : is_digit c = true -> plainc sp c = true.
Proof. unfold is_digit, plainc, auth_delim, is_tnl. destruct sp; lia. Qed.

Lemma port_text_scan sp pt X : tail_ok X ->
  (match pt with Some p => p <= 65535 | None => True end) ->
  forall count last, scan_last_at sp (port_text pt ++ X) count last = last.
Proof.
  intros HX Hp count last. destruct pt as [p|]; cbn [port_text app].
  - change (58 :: decimal p ++ X) with ((58 :: decimal p) ++ X). rewrite scan_plain.
    + apply scan_stop. apply tail_stop. exact HX.
    + cbn [forallb]. replace (plainc sp 58) with true by (destruct sp; reflexivity). cbn [andb].
      apply (forallb_impl is_digit); [apply digit_plain|]. exact (proj2 (port_rt p Hp)).
  - apply scan_stop. apply tail_stop. exact HX.
Qed.

Lemma auth_scan st h pt X : host_ok hp hpo hd st h -> (h = HDomain [] -> pt = None) ->
  (match pt with Some p => p <= 65535 | None => True end) -> tail_ok X ->
  forall count last, scan_last_at (st_is_special st) (hd h ++ port_text pt ++ X) count last = last.
Proof.
  intros Hh Hemp Hp HX. destruct Hh as [[-> _]|(Hne & Ht & _)].
  - rewrite (hd_empty hp hpo hd HOK). cbn [app]. apply port_text_scan; [exact HX | exact Hp].
  - apply host_text_scan; [exact Ht|]. apply port_text_scan; [exact HX | exact Hp].
Qed.

Lemma port_ok_le dflt pt : port_ok dflt pt -> match pt with Some p => p <= 65535 | None => True end.
Proof. destruct pt; [intros [H _]; exact H | tauto]. Qed.

Lemma ads_canon_st st sch ui h pt p q f : auth_ok st sch ui h pt p q f -> pth_ok_st st p -> st_is_file st = false ->
  query_enc ovr sch = utf8_encode ->
  after_double_slash dbg hp hpo hd ovr CUrlParser st (nlen sch) (sch ++ [58])
    (ui_text ui ++ hd h ++ port_text pt ++ pth_text p ++ qf_text q f)
  = POk (auth_url sch ui h pt p q f).
Proof.
  intros K Kps Hnf Henc. destruct K as [Ksch Kst Kui Kh Kemp Kpt Kp Kq Kf Kb Kbq Kbf].
  pose proof (qf_text_qh q f) as Hqf. pose proof (pth_tail p _ Hqf) as Htail.
  pose proof (front_len sch ui h pt) as FL. pose proof (ui_ulen_le ui) as UL.
  assert (nlen ((sch ++ [58]) ++ [47; 47]) = nlen sch + 3) as L0 by len_lia.
  unfold after_double_slash.
  rewrite parse_userinfo_canon; [| exact Kui | | lia].
  2:{ apply (auth_scan st h pt _ Kh (fun E => proj2 (Kemp E)) (port_ok_le _ _ Kpt) Htail). }
  cbn [pbind]. rewrite to_u32_ok by (rewrite nlen_app; lia). cbn [pbind].
  rewrite phap_unfold.
  rewrite (parse_host_canon hp hpo hd HOK st Hnf h pt _ Kh (fun E => proj2 (Kemp E)) Htail). cbn [pbind].
  rewrite (hap_tail_canon hp hpo hd st (nlen sch) _ h pt _ Kh (fun E => proj2 (Kemp E))); [| | exact Htail | rewrite nlen_app; lia].
  2:{ replace (nfirstn (nlen sch) ((((sch ++ [58]) ++ [47; 47]) ++ ui_text ui) ++ hd h)) with sch; [exact Kpt|].
      rewrite <- !app_assoc. symmetry. apply nfirstn_app_len. }
  cbn [pbind]. rewrite front_eq.
  assert (hi_eqb (hi_of_host h) HI_None
          && negb (nlen ((sch ++ [58]) ++ [47; 47]) =? nlen (((sch ++ [58]) ++ [47; 47]) ++ ui_text ui)) = false) as Ee.
  { destruct Kh as [[-> _]|(Hne & _)].
    - destruct (Kemp eq_refl) as [-> _]. cbn [ui_text]. rewrite app_nil_r. rewrite N.eqb_refl. apply andb_false_r.
    - rewrite (hi_some h Hne). reflexivity. }
  rewrite Ee. rewrite to_u32_ok by exact Kb. cbn [pbind].
  rewrite (pps_canon_st dbg st _ p _ true Hnf Kps Hqf (front_not_slash_st st sch ui h pt Kh)). cbn [pbind].
  fold (auth_pre sch ui h pt p).
  rewrite wqf_auth; [| lia | apply front_css].
  rewrite (pqf_canon ovr st (nlen sch) (auth_pre sch ui h pt p) q f); try assumption.
  - cbn [pbind]. unfold auth_url, auth_ser. f_equal. f_equal; rewrite ?nlen_app; unfold nlen; cbn [length]; lia.
  - unfold auth_pre. rewrite <- app_assoc. rewrite front_sch. exact Henc.
Qed.

(* every byte of the canonical serialization is ASCII above U+0020 *)
Definition okc (c : N) : bool := above_space c && (c <? 128).

Lemma okc_above l : forallb okc l = true -> forallb above_space l = true.
Proof. apply forallb_impl. intros c H. unfold okc in H. apply andb_true_iff in H. tauto. Qed.

Lemma okc_ascii l : forallb okc l = true -> ascii l.
Proof.
  rewrite forallb_forall. intros H. apply Forall_forall. intros c Hc. specialize (H c Hc).
  unfold okc in H. apply andb_true_iff in H. unfold is_ascii. lia.
Qed.

Lemma okc_of l : forallb above_space l = true -> ascii l -> forallb okc l = true.
Proof.
  rewrite !forallb_forall. intros H1 H2 c Hc. unfold okc. rewrite (H1 c Hc). cbn [andb].
  unfold ascii in H2. rewrite Forall_forall in H2. specialize (H2 c Hc). unfold is_ascii in H2. lia.
Qed.

Lemma clean_okc S l : kept_sat S above_space = true -> clean S l = true -> forallb okc l = true.
Proof. intros HS Hc. apply okc_of; [exact (clean_forallb _ _ l HS Hc) | exact (clean_ascii S l Hc)]. Qed.

Lemma kept_USERINFO_above : kept_sat T_USERINFO above_space = true. Proof. vm_compute. reflexivity. Qed.
Lemma kept_query_set_above st : kept_sat (query_set st) above_space = true.
Proof. unfold query_set. destruct (st_is_special st); [exact kept_SQUERY_above | exact kept_QUERY_above]. Qed.

Lemma ui_text_okc ui : ui_ok ui -> forallb okc (ui_text ui) = true.
Proof.
  destruct ui as [|u|u p]; cbn [ui_ok ui_text]; [reflexivity| |].
  - intros [Hu _]. rewrite forallb_app, (clean_okc _ _ kept_USERINFO_above Hu). reflexivity.
  - intros (Hu & Hp & _). rewrite forallb_app. cbn [forallb]. rewrite forallb_app.
    rewrite (clean_okc _ _ kept_USERINFO_above Hu), (clean_okc _ _ kept_USERINFO_above Hp). reflexivity.
Qed.

Lemma host_okc st h : host_ok hp hpo hd st h -> forallb okc (hd h) = true.
Proof.
  intros [[-> _]|(_ & Ht & _ & Ha)]; [rewrite (hd_empty hp hpo hd HOK); reflexivity|].
  apply okc_of; [exact Ha | exact (proj1 Ht)].
Qed.

Lemma port_text_okc dflt pt : port_ok dflt pt -> forallb okc (port_text pt) = true.
Proof.
  destruct pt as [p|]; [|reflexivity]. intros [Hp _]. cbn [port_text forallb]. replace (okc 58) with true by reflexivity.
  cbn [andb]. apply (forallb_impl is_digit); [|exact (proj2 (port_rt p Hp))].
  intros c Hc. unfold okc, above_space, is_c0_or_space, is_digit in *. lia.
Qed.

Lemma good_seg_okc s : good_seg s = true -> forallb okc s = true.
Proof. intros H. destruct (good_seg_parts s H) as (Hc & _). exact (clean_okc _ _ kept_PATH_above Hc). Qed.

Lemma pth_text_okc p : pth_ok p -> forallb okc (pth_text p) = true.
Proof.
  destruct p as [[segs last]|]; [|reflexivity]. intros [Hs Hl]. cbn [pth_text]. unfold path_text. cbn [forallb].
  replace (okc 47) with true by reflexivity. cbn [andb]. rewrite forallb_app, (good_seg_okc last Hl), andb_true_r.
  induction segs as [|s segs IH]; [reflexivity|].
  cbn [forallb] in Hs. apply andb_true_iff in Hs. destruct Hs as [H1 H2].
  unfold segs_text. cbn [map concat]. fold (segs_text segs). rewrite !forallb_app. rewrite (good_seg_okc s H1), (IH H2). reflexivity.
Qed.

Lemma qf_text_okc st q f : opt_clean (query_set st) q -> opt_clean T_FRAGMENT f -> forallb okc (qf_text q f) = true.
Proof.
  intros Hq Hf. unfold qf_text. rewrite forallb_app. apply andb_true_iff. split.
  - destruct q as [x|]; [|reflexivity]. cbn [qf_qtext forallb]. rewrite (clean_okc _ _ (kept_query_set_above st) Hq). reflexivity.
  - destruct f as [y|]; [|reflexivity]. cbn [qf_ftext forallb]. rewrite (clean_okc _ _ kept_FRAGMENT_above Hf). reflexivity.
Qed.

Lemma scheme_okc sch : forallb scheme_out_char sch = true -> forallb okc sch = true.
Proof.
  apply forallb_impl. intros c H. unfold scheme_out_char, is_lower, is_digit, okc, above_space, is_c0_or_space in *. lia.
Qed.

Lemma auth_ser_okc st sch ui h pt p q f : auth_ok st sch ui h pt p q f -> forallb okc (auth_ser sch ui h pt p q f) = true.
Proof.
  intros K. destruct K as [Ksch Kst Kui Kh Kemp Kpt Kp Kq Kf Kb Kbq Kbf].
  unfold scheme_canon in Ksch. apply andb_true_iff in Ksch. destruct Ksch as [_ Hall].
  unfold auth_ser, auth_pre, auth_front. rewrite !forallb_app.
  rewrite (scheme_okc sch Hall), (ui_text_okc ui Kui), (host_okc st h Kh), (port_text_okc _ pt Kpt), (pth_text_okc p Kp),
    (qf_text_okc st q f Kq Kf). reflexivity.
Qed.

Lemma auth_ser_shape sch ui h pt p q f :
  auth_ser sch ui h pt p q f = sch ++ 58 :: 47 :: 47 :: ui_text ui ++ hd h ++ port_text pt ++ pth_text p ++ qf_text q f.
Proof. unfold auth_ser, auth_pre, auth_front. rewrite <- !app_assoc. reflexivity. Qed.

(* L3, first step: the canonical text is not trimmed and its scheme is read back *)
Lemma reparse_scheme_step st sch ui h pt p q f : auth_ok st sch ui h pt p q f ->
  parse_url dbg hp hpo hd ovr None (auth_ser sch ui h pt p q f)
  = parse_with_scheme dbg hp hpo hd ovr None sch
      (47 :: 47 :: ui_text ui ++ hd h ++ port_text pt ++ pth_text p ++ qf_text q f).
Proof.
  intros K. unfold parse_url.
  rewrite trim_c0_id by (apply all_above_edge; apply okc_above; exact (auth_ser_okc _ _ _ _ _ _ _ _ K)).
  rewrite auth_ser_shape. rewrite parse_scheme_canon by exact (ak_sch _ _ _ _ _ _ _ _ K). reflexivity.
Qed.

(* L3 for the class *)
Theorem reparse_auth_form sch ui h pt p q f : auth_ok STNotSpecial sch ui h pt p q f ->
  parse_url dbg hp hpo hd ovr None (auth_ser sch ui h pt p q f) = POk (auth_url sch ui h pt p q f).
Proof.
  intros K. rewrite (reparse_scheme_step _ _ _ _ _ _ _ _ K).
  pose proof (ads_canon_st _ _ _ _ _ _ _ _ K (ak_p _ _ _ _ _ _ _ _ K) eq_refl
                (query_enc_nonspecial ovr sch (ak_st _ _ _ _ _ _ _ _ K))) as Hads.
  destruct K as [Ksch Kst Kui Kh Kemp Kpt Kp Kq Kf Kb Kbq Kbf].
  unfold parse_with_scheme. rewrite Kst.
  rewrite to_u32_ok by (rewrite front_len in Kb; lia). cbn [pbind].
  unfold parse_non_special. unfold s_ss. cbn [inp_split_prefix_str].
  rewrite inp_next_cons by reflexivity. replace (47 =? 47) with true by reflexivity.
  rewrite inp_next_cons by reflexivity. replace (47 =? 47) with true by reflexivity.
  exact Hads.
Qed.

(* L1 for the class, from the input *)
Theorem parse_auth_out input sch rem rem' u : usv_list input ->
  parse_scheme CUrlParser (input_new_trim_c0 input) = Some (sch, rem) ->
  scheme_type_of sch = STNotSpecial -> inp_split_prefix_str s_ss rem = Some rem' ->
  parse_url dbg hp hpo hd ovr None input = POk u ->
  exists ui h pt p q f, auth_ok STNotSpecial sch ui h pt p q f /\ u = auth_url sch ui h pt p q f.
Proof.
  intros Hu Hs Hns Hss. unfold parse_url. rewrite Hs. unfold parse_with_scheme. rewrite Hns.
  destruct (to_u32 (nlen sch)) as [se| |] eqn:Eu; cbn [pbind]; try discriminate.
  apply to_u32_inv in Eu. destruct Eu as [-> Hb0].
  pose proof (scheme_rem_usv input sch rem Hu Hs) as Hur.
  pose proof (split_prefix_str_usv s_ss rem rem' Hur Hss) as Hur'.
  unfold parse_non_special. rewrite Hss.
  apply ads_out; [exact (parse_scheme_out _ _ _ Hs) | exact Hns | exact Hur'].
Qed.

End WithOvr.
End Auth.
