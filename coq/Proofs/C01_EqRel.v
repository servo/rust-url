(* Proofs/C01_EqRel.v - C01 equivalence for scheme-less references against a base that is neither
   special nor opaque: the Standard's  no scheme -> relative -> relative slash  states
   (specification side, for ANY such base), the way from parse_url to parse_relative (model side),
   and the class "//authority..." (relative slash state -> authority state; after_double_slash on
   "scheme:" of the base), which reuses the authority machinery of C01_EqAuth*.v. *)
From RU Require Import Base.Prelude Model.HostT Model.UrlRecord Model.Parser Model.Setters Spec.Whatwg
  Proofs.ListN Proofs.C02_Parts Proofs.C03_WF Proofs.C08_Input Proofs.C01_EqRun Proofs.C01_EqEnc
  Proofs.C01_EqPathSpec Proofs.C08_NoAuth Proofs.C01_EqRef Proofs.C01_EqPath Proofs.C01_EqClasses
  Proofs.C01_EqAuthSpec Proofs.C01_EqAuthModel Proofs.C01_EqAuth Proofs.C01_EqClasses2.

(* specification side *)
(* what the relative / relative slash states keep of the base when a path follows: everything in front
   of the path; query and fragment are null again *)
Definition rel_keep (sb : spec_url) (P : list (list N)) : spec_url :=
  mkSUrl (su_scheme sb) (su_username sb) (su_password sb) (su_host sb) (su_port sb) (SPList P) None None.

(* the path state started on the segment list P0 (empty buffer), on the text t *)
Definition rel_path_result (sb : spec_url) (P0 : list (list N)) (t : list N) : spec_url :=
  tail_url (rel_keep sb (fst (spath t P0 []))) (snd (spath t P0 [])).

Section SpecRel.
Variable shp : bool -> list N -> option spec_host.
Variable inp : list N.                 (* the cleaned reference *)
Variable sb : spec_url.
Hypothesis Hop : has_opaque_path sb = false.
Hypothesis Hnsp : is_special_scheme (su_scheme sb) = false.

Notation RunsB := (Runs shp inp (Some sb)).

Lemma base_not_file : list_eqb (su_scheme sb) str_file = false.
Proof.
  destruct (list_eqb (su_scheme sb) str_file) eqn:E; [|reflexivity]. apply list_eqb_spec in E.
  rewrite E in Hnsp. discriminate Hnsp.
Qed.

(* no scheme state on a non-empty text: the relative state, at the same code point *)
Lemma runs_to_relative res : spec_scheme inp = None -> inp <> [] ->
  RunsB (at_pos StRelative [] [] false false false empty_url) res -> RunsB m0 res.
Proof.
  intros Hs Hne HR. apply runs_no_scheme; [exact Hs|].
  eapply (runs_step_stay shp inp (Some sb) StNoScheme [] inp) with (st' := StRelative) (buf' := []);
    [reflexivity | exact Hne | | exact HR].
  rewrite (step_unfold shp inp (Some sb) _ [] inp) by reflexivity. cbn zeta.
  unfold st_no_scheme. rewrite Hop, base_not_file. cbn [andb negb]. reflexivity.
Qed.

(* relative state on '/': the relative slash state, after it *)
Lemma runs_relative_slash t res : inp = 47 :: t ->
  RunsB (at_pos StRelativeSlash [47] [] false false false (set_scheme empty_url (su_scheme sb))) res ->
  RunsB (at_pos StRelative [] [] false false false empty_url) res.
Proof.
  intros Hin HR.
  eapply (runs_step_next shp inp (Some sb) StRelative [] 47 t) with (st' := StRelativeSlash) (buf' := []);
    [exact Hin | | exact HR].
  rewrite (step_unfold shp inp (Some sb) _ [] (47 :: t)) by exact Hin. cbn zeta. cbn [hd_error].
  unfold st_relative. cbn [cis]. replace (47 =? 47) with true by reflexivity. reflexivity.
Qed.

(* "//T": relative slash state on the second '/': the authority state on T *)
Theorem runs_rel_authority T : inp = 47 :: 47 :: T -> spec_scheme inp = None ->
  match sauth shp (su_scheme sb) T with
  | Some su => RunsB m0 (BDone su)
  | None => exists uf, RunsB m0 (BFailure uf)
  end.
Proof.
  intros Hin Hs.
  assert (forall res, RunsB (at_pos StAuthority [47; 47] [] false false false (set_scheme empty_url (su_scheme sb))) res ->
                      RunsB m0 res) as K.
  { intros res HR. apply runs_to_relative; [exact Hs | rewrite Hin; discriminate|].
    apply (runs_relative_slash (47 :: T) res Hin).
    eapply (runs_step_next shp inp (Some sb) StRelativeSlash [47] 47 T) with (st' := StAuthority) (buf' := []);
      [exact Hin | | exact HR].
    rewrite (step_unfold shp inp (Some sb) _ [47] (47 :: T)) by exact Hin. cbn zeta. cbn [hd_error].
    unfold st_relative_slash, is_special. cbn [m_url at_pos su_scheme set_scheme empty_url]. rewrite Hnsp.
    cbn [andb cis]. replace (47 =? 47) with true by reflexivity. reflexivity. }
  assert (inp = [47; 47] ++ T) as Hin2 by exact Hin.
  pose proof (runs_authority shp inp (Some sb) [47; 47] T (su_scheme sb) Hin2 Hnsp) as RA.
  destruct (sauth shp (su_scheme sb) T) as [su|].
  - apply K. exact RA.
  - destruct RA as [uf RA]. exists uf. apply K. exact RA.
Qed.

Lemma rel_keep_eq P :
  set_port (set_host (set_password (set_username (set_scheme empty_url (su_scheme sb)) (su_username sb))
                                   (su_password sb)) (su_host sb)) (su_port sb)
  = rel_keep sb [] /\ set_path (rel_keep sb []) (SPList P) = rel_keep sb P.
Proof. split; reflexivity. Qed.

(* "/t", t not starting with '/': relative slash state, then the path state on t with an empty path *)
Theorem runs_rel_abs t : inp = 47 :: t -> starts_with_cp 47 t = false ->
  RunsB m0 (BDone (rel_path_result sb [] t)).
Proof.
  intros Hin H47.
  assert (spec_scheme inp = None) as Hs by (rewrite Hin; reflexivity).
  apply runs_to_relative; [exact Hs | rewrite Hin; discriminate|].
  apply (runs_relative_slash t _ Hin).
  assert (inp = [47] ++ t) as Hin2 by exact Hin.
  eapply (runs_step_back shp inp (Some sb) StRelativeSlash [47] t) with (st' := StPath) (buf' := []) (u' := rel_keep sb []);
    [exact Hin2 | |].
  - rewrite (step_unfold shp inp (Some sb) _ [47] t) by exact Hin2. cbn zeta.
    unfold st_relative_slash, is_special. cbn [m_url at_pos su_scheme set_scheme empty_url]. rewrite Hnsp.
    cbn [andb].
    assert (cis (hd_error t) 47 = false) as -> by (destruct t; [reflexivity | exact H47]).
    reflexivity.
  - pose proof (runs_path shp inp (Some sb) t [47] [] false false false (rel_keep sb []) [] Hin2 eq_refl Hnsp base_not_file) as HR.
    exact HR.
Qed.

(* "c t", c none of '/', '?', '#', no scheme: the base's path without its last segment, then the path state
   on the whole text *)
Theorem runs_rel_path c t : inp = c :: t -> spec_scheme inp = None ->
  (c =? 47) = false -> (c =? 63) = false -> (c =? 35) = false ->
  RunsB m0 (BDone (rel_path_result sb (removelast (path_segments sb)) inp)).
Proof.
  intros Hin Hs E47 E63 E35.
  apply runs_to_relative; [exact Hs | rewrite Hin; discriminate|].
  assert (inp = [] ++ inp) as Hin0 by reflexivity.
  assert (su_path sb = SPList (path_segments sb)) as HP.
  { unfold path_segments. unfold has_opaque_path in Hop. destruct (su_path sb); [discriminate Hop | reflexivity]. }
  eapply (runs_step_stay shp inp (Some sb) StRelative [] inp) with (st' := StPath) (buf' := [])
    (u' := rel_keep sb (removelast (path_segments sb))); [reflexivity | rewrite Hin; discriminate | |].
  - rewrite (step_unfold shp inp (Some sb) _ [] inp) by reflexivity. cbn zeta. rewrite Hin. cbn [hd_error].
    unfold st_relative, is_special. cbn [cis m_url at_pos su_scheme set_scheme empty_url]. rewrite Hnsp, E47, E63, E35.
    cbn [andb is_eof negb].
    unfold shorten_path.
    cbn [su_path su_scheme set_query set_path set_port set_host set_password set_username set_scheme empty_url].
    rewrite HP, base_not_file. cbn [andb]. reflexivity.
  - pose proof (runs_path shp inp (Some sb) inp [] [] false false false (rel_keep sb (removelast (path_segments sb)))
                  (removelast (path_segments sb)) Hin0 eq_refl Hnsp base_not_file) as HR.
    exact HR.
Qed.

End SpecRel.

(* model side: from parse_url to parse_relative *)
Section ModelRel.
Variable dbg : bool.
Variable hp hpo : list N -> result host.
Variable hd : host -> list N.
Variable ovr : option (list N -> list N).

Lemma parse_url_relative b input c t :
  cannot_be_a_base b = Some false -> scheme_type_of (b_scheme b) = STNotSpecial ->
  ntnl (input_new_trim_c0 input) = c :: t -> spec_scheme (c :: t) = None -> (c =? 35) = false ->
  parse_url dbg hp hpo hd ovr (Some b) input
  = parse_relative dbg hp hpo hd ovr CUrlParser STNotSpecial b (input_new_trim_c0 input).
Proof.
  intros Hcb Hst Ht Hs E35. unfold parse_url. set (l := input_new_trim_c0 input) in *.
  pose proof (scheme_state_eq l) as K. rewrite Ht, Hs in K.
  destruct (parse_scheme CUrlParser l) as [[s r]|]; [contradiction|].
  destruct (inp_next_some l c t Ht) as (r & En & _ & _).
  unfold inp_starts_with_char. rewrite En, E35, Hcb, Hst. reflexivity.
Qed.

End ModelRel.

(* facts about a related base *)
Section RelatedFacts.
Variable dbg : bool.
Variable shs : spec_host -> list N.

Lemma related_not_cbb b sb : related dbg shs b sb -> has_opaque_path sb = false -> cannot_be_a_base b = Some false.
Proof. intros R Hop. rewrite (rel_cbb _ _ _ _ R), Hop. reflexivity. Qed.

Lemma related_not_special b sb : related dbg shs b sb -> is_special_scheme (su_scheme sb) = false ->
  scheme_type_of (b_scheme b) = STNotSpecial.
Proof. intros R H. rewrite (rel_sch _ _ _ _ R). apply not_special_type. exact H. Qed.

(* "scheme:" of the base *)
Lemma related_scheme_colon b sb : related dbg shs b sb ->
  nfirstn (scheme_end b + 1) (ser b) = su_scheme sb ++ [58] /\ scheme_end b = nlen (su_scheme sb)
  /\ nnth (ser b) (scheme_end b) = Some 58.
Proof.
  intros R. pose proof (rel_wf _ _ _ _ R) as W. destruct (wf_scheme_facts b W) as (_ & Hc & Hlt).
  apply byte_eqb_nnth in Hc. split; [|split; [|exact Hc]].
  - rewrite (nfirstn_succ _ _ 58 Hc). rewrite <- (rel_sch _ _ _ _ R). reflexivity.
  - rewrite <- (rel_sch _ _ _ _ R). unfold b_scheme. rewrite nlen_nfirstn by lia. reflexivity.
Qed.

End RelatedFacts.

(* class "//authority...": scheme-relative references *)
(* recogniser on the Standard's side: base neither opaque nor special, the cleaned reference starts
   with "//", and the text after it is in the authority class of C01_EqClasses2 (exclusions: authority
   exactly ":@", a port followed by '\', a ".." popping a drive-letter-shaped segment) *)
Definition in_class_rel_authority (sb : spec_url) (input : list N) : bool :=
  negb (has_opaque_path sb) && negb (is_special_scheme (su_scheme sb))
  && match spec_clean input with
     | c1 :: c2 :: T => (c1 =? 47) && (c2 =? 47) && auth_class_ok T
     | _ => false
     end.

Definition rel_host_text (input : list N) : list N :=
  match spec_clean input with
  | _ :: _ :: T => auth_host_text T
  | _ => []
  end.

Section RelAuthority.
Variable dbg : bool.
Variable hp hpo : list N -> result host.
Variable hd : host -> list N.
Variable ovr : option (list N -> list N).
Variable shp : bool -> list N -> option spec_host.
Variable shs : spec_host -> list N.

Theorem spec_rel_authority input sb T : has_opaque_path sb = false -> is_special_scheme (su_scheme sb) = false ->
  spec_clean input = 47 :: 47 :: T ->
  match sauth shp (su_scheme sb) T with
  | Some su => spec_basic_url_parse shp input (Some sb) = BDone su
  | None => exists uf, spec_basic_url_parse shp input (Some sb) = BFailure uf
  end.
Proof.
  intros Hop Hnsp Hc.
  assert (spec_scheme (spec_clean input) = None) as Hs by (rewrite Hc; reflexivity).
  pose proof (runs_rel_authority shp (spec_clean input) sb Hop Hnsp T Hc Hs) as K.
  destruct (sauth shp (su_scheme sb) T) as [su|].
  - apply spec_parse_of_runs. exact K.
  - destruct K as [uf K]. exists uf. apply spec_parse_of_runs. exact K.
Qed.

(* the model on "//T": after_double_slash on "scheme:" of the base *)
Lemma model_rel_authority b sb input T : usv_list input -> related dbg shs b sb ->
  has_opaque_path sb = false -> is_special_scheme (su_scheme sb) = false ->
  spec_clean input = 47 :: 47 :: T ->
  exists l, ntnl l = T /\ usv_list l
    /\ parse_url dbg hp hpo hd ovr (Some b) input
       = after_double_slash dbg hp hpo hd ovr CUrlParser STNotSpecial (nlen (su_scheme sb)) (su_scheme sb ++ [58]) l.
Proof.
  intros Hu R Hop Hnsp Hc. rewrite spec_clean_is_ntnl_trim in Hc.
  set (l0 := input_new_trim_c0 input) in *.
  assert (usv_list l0) as Hul0 by (apply usv_trim; exact Hu).
  destruct (split_ss l0 T Hul0 Hc) as (l & Hss & Hl & Hul).
  exists l. split; [exact Hl|]. split; [exact Hul|].
  rewrite (parse_url_relative dbg hp hpo hd ovr b input 47 (47 :: T)
             (related_not_cbb dbg shs b sb R Hop) (related_not_special dbg shs b sb R Hnsp) Hc eq_refl eq_refl).
  fold l0. unfold parse_relative, inp_split_first.
  destruct (inp_next_some l0 47 (47 :: T) Hc) as (r1 & En & _ & _). rewrite En.
  replace (47 =? 63) with false by reflexivity. replace (47 =? 35) with false by reflexivity.
  replace (47 =? 47) with true by reflexivity. cbn [orb st_is_special andb negb].
  destruct (inp_count_matching (fun d => (d =? 47) || (d =? 92) && false) l0) as [sl rem'] eqn:Ecm.
  assert (2 <= sl) as Hsl.
  { pose proof (inp_count_matching_fst (fun d => (d =? 47) || (d =? 92) && false) l0) as Hf.
    rewrite Ecm in Hf. cbn [fst] in Hf. rewrite Hf, Hc. cbn [count_leading].
    replace (47 =? 47) with true by reflexivity. cbn [orb]. lia. }
  replace (2 <=? sl) with true by lia.
  destruct (related_scheme_colon dbg shs b sb R) as (E1 & E2 & E3).
  rewrite E3. replace (58 =? 58) with true by reflexivity.
  unfold dassert. cbn [negb]. rewrite andb_false_r. cbn [pbind].
  rewrite Hss, E1, E2. reflexivity.
Qed.

Theorem class_rel_authority input b sb : usv_list input -> related dbg shs b sb ->
  scheme_canon (su_scheme sb) = true ->
  in_class_rel_authority sb input = true ->
  host_agree hpo hd shp shs (rel_host_text input) ->
  agree_rel_strict dbg shs (parse_url dbg hp hpo hd ovr (Some b) input) (spec_basic_url_parse shp input (Some sb)).
Proof.
  intros Hu R Hcan Hc HA. unfold in_class_rel_authority, rel_host_text in *.
  apply andb_true_iff in Hc. destruct Hc as [Hc Hok]. apply andb_true_iff in Hc. destruct Hc as [H1 H2].
  assert (has_opaque_path sb = false) as Hop by (destruct (has_opaque_path sb); [discriminate | reflexivity]).
  assert (is_special_scheme (su_scheme sb) = false) as Hnsp
    by (destruct (is_special_scheme (su_scheme sb)); [discriminate | reflexivity]).
  destruct (spec_clean input) as [|c1 [|c2 T]] eqn:Ecl; try discriminate Hok.
  apply andb_true_iff in Hok. destruct Hok as [Hok Hok3]. apply andb_true_iff in Hok. destruct Hok as [E1 E2].
  apply N.eqb_eq in E1, E2. subst c1 c2. rename Hok3 into Hok.
  unfold auth_class_ok in Hok. apply andb_true_iff in Hok. destruct Hok as [Hok Hc3].
  apply andb_true_iff in Hok. destruct Hok as [Hc1 Hc2]. apply negb_true_iff in Hc1, Hc2.
  pose proof (spec_rel_authority input sb T Hop Hnsp Ecl) as HS.
  destruct (model_rel_authority b sb input T Hu R Hop Hnsp Ecl) as (l & Hl & Hul & Epu).
  pose proof (not_special_type _ Hnsp) as Hns.
  assert (match auth_path_text (ntnl l) with c :: r => if c =? 47 then spath_ok r [] [] = true else True | [] => True end) as Hc3'.
  { rewrite Hl. destruct (auth_path_text T) as [|c r]; [exact I|]. destruct (c =? 47); [exact Hc3 | exact I]. }
  rewrite <- Hl in Hc1, Hc2, HA.
  pose proof (model_auth dbg hp hpo hd ovr shp shs (su_scheme sb) l Hul Hcan Hns Hc1 Hc2 Hc3' HA) as HM. cbv zeta in HM.
  rewrite Hl in HM. rewrite Epu.
  destruct (sauth shp (su_scheme sb) T) as [su|].
  - rewrite HS. cbn [agree_rel_strict]. destruct HM as (u & HO & Ru & Hle).
    pose proof (related_href dbg shs u su Ru) as Eh. rewrite <- Eh.
    destruct HO as [[E B]|E]; [left; split; assumption | right; exists u; split; assumption].
  - destruct HS as [uf ->]. cbn [agree_rel_strict]. exact HM.
Qed.

End RelAuthority.
