(* Proofs/C04_Table2.v - the inventory table of Proofs/C04_Table.v with REAL claims on rows that carried the trivial one.
   C04_Table.table decides "no public function panics" function by function; 54 of its 167 rows (kinds KByType /
   KDocumented / KHarness) carry the claim True.  For the functions among them that HAVE a Gallina model this file
   replaces True by a statement about that model, proved from the existing totality / cost / UTF-8 theorems:
     - where the model has a panic outcome (to_u32, the file host state, a Serializer::new session): no panic;
     - where the model is total by its type (the Rust body has no slicing / unwrap / failing arithmetic): the facts the
       text of C04 asks for beside panic freedom - the result stays in the declared integer range (no overflow), the
       text handed back is ASCII / a list of scalar values (valid UTF-8), the cost twin is linear.
   table2 is COMPUTED from C04_Table.table and the list `overrides` (crate, name, claim, pinned theorem), so its key
   columns are those of the old table - hence the regenerated inventory T_C04_API - by construction, and the rows not
   named in `overrides` keep kind, claim and theorem (claim Q_old i = C04_Table.claim i).
   overrides_sound: every override names a row of the old table whose kind was KByType (no dead entry, no row with a
   real claim is overwritten).  The rows left with the trivial claim are plain constructors / field reads / matches
   (nothing to state on the model), the 2 documented panics and the 4 functions without model. *)
From Coq Require Import String Ascii.
From RU Require Import Base.Prelude Base.Utf8 Model.AsciiSet Gen.Tables Model.PercentEncoding
  Model.HostT Model.UrlRecord Model.Parser Model.Cost Model.UnsafeSites.
From RU Require Base.Outcome_c15 Model.FormUrlencoded Model.Mime Model.DataUrl.
From RU Require Proofs.C04_Inventory Proofs.C04_Table Proofs.C04_Cost Proofs.C04_CostAuth Proofs.C04_Utf8
  Proofs.C14_Enc Proofs.C14_Views Proofs.C14_Set Proofs.C15_Parse Proofs.C15_Ser Proofs.C15_Main Proofs.C17_Fragment
  Proofs.C06_FragQuery Proofs.C02_Parts Proofs.C02_SetScheme Proofs.C05_Sharp Proofs.C19_Pure.
From RU Require Properties.C14 Properties.C19.

(* ---------------------------------------------------------------- kinds *)
Inductive kind2 :=
| K (k : C04_Table.kind)   (* the row is the row of C04_Table.table *)
| KRange.                  (* a row that carried the trivial claim, now with a claim on its model: no panic where the
                              model has a panic outcome; integer range / valid UTF-8 / linear cost twin where the model
                              is total by its type *)

Definition kind2_eqb (a b : kind2) : bool :=
  match a, b with
  | K x, K y => C04_Table.kind_eqb x y
  | KRange, KRange => true
  | _, _ => false
  end.

Inductive claim2_id :=
| Q_old (i : C04_Table.claim_id)
| Q_to_u32 | Q_default_port | Q_aset_closed | Q_percent_decode | Q_parser_tail | Q_file_host
| Q_frag_pe | Q_mime_get | Q_ser_new | Q_input | Q_parse_scheme.

Definition claim2_trivial (q : claim2_id) : bool :=
  match q with Q_old i => C04_Table.claim_eqb_trivial i | _ => false end.

Definition claim2 (q : claim2_id) : Prop :=
  match q with
  | Q_old i => C04_Table.claim i
  | Q_to_u32 =>
      (* parser.rs to_u32: the usize -> u32 guard of every offset of the record.  No panic; Ok exactly below 2^32,
         ParseError::Overflow above (never a wrapped value) *)
      forall n, to_u32 n <> PPanic
                /\ (n <= 4294967295 -> to_u32 n = POk n) /\ (4294967295 < n -> to_u32 n = PErr Overflow)
  | Q_default_port =>
      (* parser::default_port: a u16 *)
      forall s p, default_port s = Some p -> p < 65536
  | Q_aset_closed =>
      (* AsciiSet::union / complement: the four words stay u32 values (`|`, `!` on [u32; 4]; no index, no shift), and
         membership of every ASCII byte is the set operation *)
      forall a b, aset_wf a -> aset_wf b ->
        aset_wf (aset_union a b) /\ aset_wf (aset_complement a)
        /\ (forall y, y < 128 ->
              aset_contains (aset_union a b) y = (aset_contains a y || aset_contains b y)
              /\ aset_contains (aset_complement a) y = negb (aset_contains a y))
  | Q_percent_decode =>
      (* percent_decode / percent_decode_str / PercentDecode::decode_utf8 / decode_utf8_lossy: the decoder's step
         count is at most 3 per input byte, the output is not longer than the input, the Cow value is the decoded
         text, the String of the lossy view is a list of scalar values, and the Vec reused as a String at
         percent_encoding lib.rs:359 (site_lossy_reuse) is valid UTF-8 *)
      forall bs,
        fst (decode_c bs) = decode bs /\ snd (decode_c bs) <= 3 * nlen bs
        /\ (length (decode bs) <= length bs)%nat
        /\ snd (pd_cow bs) = decode bs
        /\ usv_list (snd (FormUrlencoded.decode_utf8_lossy (pd_cow bs)))
        /\ (forall s, site_lossy_reuse (decode bs) = Some s -> s = decode bs /\ utf8_valid s = true)
  | Q_parser_tail =>
      (* Parser::parse_fragment / parse_query / parse_cannot_be_a_base_path: total by type; linear cost twins *)
      forall set enc iup ctx ser l, C04_Cost.enc_ok enc -> usv_list l ->
        fst (parse_fragment_loop_c ser [] l) = parse_fragment ser l
        /\ snd (parse_fragment_loop_c ser [] l) <= 13 * nlen l + 1
        /\ fst (parse_query_loop_c set enc iup ser [] l) = parse_query_loop set enc iup ser [] l
        /\ snd (parse_query_loop_c set enc iup ser [] l) <= 13 * nlen l + 1
        /\ fst (parse_cannot_be_a_base_path_c ctx ser l) = parse_cannot_be_a_base_path ctx ser l
        /\ snd (parse_cannot_be_a_base_path_c ctx ser l) <= 13 * nlen l + 1
  | Q_file_host =>
      (* Parser::file_host: host text and remaining input are not longer than the input (the slice
         input_str[..bytes] is in range), the scan costs at most 2 per character, and the two callers have no panic
         outcome for any host parser / Display *)
      forall (hp : list N -> result host) (hd : host -> list N) ser l,
        nlen (fst (file_host l)) <= nlen l /\ nlen (snd (file_host l)) <= nlen l
        /\ fst (C04_CostAuth.file_host_scan_c [] l) = file_host_scan [] l
        /\ snd (C04_CostAuth.file_host_scan_c [] l) <= 2 * nlen l + 1
        /\ get_file_host hp l <> PPanic /\ parse_file_host hp hd ser l <> PPanic
  | Q_frag_pe =>
      (* FragmentIdentifier::to_percent_encoded: the String built byte by byte (`byte as char`) is ASCII *)
      forall bs, bytes bs -> ascii (DataUrl.to_percent_encoded bs)
  | Q_mime_get =>
      (* Mime::get_parameter (iter().find(): total): on a parse result it returns exactly the parameter pairs *)
      forall s m n v, usv_list s -> Mime.parse s = Mime.Ok (Some m) ->
        (In (n, v) (Mime.m_params m) <-> Mime.get_parameter (Mime.m_params m) n = Some v)
  | Q_ser_new =>
      (* Serializer::new(target) = for_suffix(target, 0): position 0 is in range and a character boundary, so neither
         the documented for_suffix panic nor the class Known_C15_1 (F-C15-1) can occur - ANY session of well-formed
         operations on ANY target ends in Ok *)
      forall target ops, Forall C15_Ser.op_ok ops ->
        exists result, C15_Main.str_session target 0 ops = Outcome_c15.Ok result
  | Q_input =>
      (* Input::new_no_trim / new_trim_tab_and_newlines / new_trim_c0_control_and_space / is_empty / split_prefix:
         what they return wraps a &str again - the trimmed text and every remainder is a list of scalar values (the
         cuts are between characters) - and is_empty is `next() is None` *)
      forall l, usv_list l ->
        usv_list (input_new_no_trim l) /\ usv_list (input_new_trim_tnl l) /\ usv_list (input_new_trim_c0 l)
        /\ (inp_is_empty l = true <-> inp_next l = None)
        /\ (forall c r, inp_split_prefix_char c l = Some r -> usv_list r)
        /\ (forall p r, inp_split_prefix_str p l = Some r -> usv_list r)
  | Q_parse_scheme =>
      (* Parser::parse_scheme (model: Some (scheme, remaining) / None = Err(())): the scheme pushed to the serialization
         starts with a lower-case letter and consists of a-z 0-9 + - . (ASCII), the remaining input is a suffix of the
         input and a &str again.  The debug_assert!(self.serialization.is_empty()) of the Rust function is about the
         caller (a fresh Parser at its three call sites) and is not part of the model *)
      forall ctx l s r, usv_list l -> parse_scheme ctx l = Some (s, r) ->
        C02_Parts.scheme_canon s = true /\ usv_list r /\ exists pre, l = pre ++ r
  end.

(* ---------------------------------------------------------------- proofs of the new claims *)
Lemma to_u32_claim n :
  to_u32 n <> PPanic /\ (n <= 4294967295 -> to_u32 n = POk n) /\ (4294967295 < n -> to_u32 n = PErr Overflow).
Proof.
  unfold to_u32, U32_MAX_P. destruct (N.leb_spec n 4294967295) as [H|H].
  - split; [discriminate|]. split; [reflexivity | lia].
  - split; [discriminate|]. split; [lia | reflexivity].
Qed.

Lemma default_port_u16 s p : default_port s = Some p -> p < 65536.
Proof.
  unfold default_port. destruct (list_eqb s s_http || list_eqb s s_ws).
  - intros H. inversion H. lia.
  - destruct (list_eqb s s_https || list_eqb s s_wss).
    + intros H. inversion H. lia.
    + destruct (list_eqb s s_ftp); [intros H; inversion H; lia | discriminate].
Qed.

Lemma log2_u32 a : a <= U32_MAX -> N.log2 a < 32.
Proof.
  intros H. destruct (N.eq_dec a 0) as [->|Hn]; [reflexivity|].
  apply N.log2_lt_pow2; [lia|]. change (2^32) with 4294967296. unfold U32_MAX in H. lia.
Qed.
Lemma u32_log2 x : N.log2 x < 32 -> x <= U32_MAX.
Proof.
  intros H. destruct (N.eq_dec x 0) as [->|Hn]; [discriminate|].
  apply N.log2_lt_pow2 in H; [|lia]. change (2^32) with 4294967296 in H. unfold U32_MAX. lia.
Qed.
Lemma lor_u32 a b : a <= U32_MAX -> b <= U32_MAX -> N.lor a b <= U32_MAX.
Proof.
  intros Ha Hb. apply u32_log2. rewrite N.log2_lor. pose proof (log2_u32 a Ha). pose proof (log2_u32 b Hb). lia.
Qed.
Lemma lxor_u32 a : a <= U32_MAX -> N.lxor a U32_MAX <= U32_MAX.
Proof.
  intros Ha. apply u32_log2. pose proof (N.log2_lxor a U32_MAX) as H. pose proof (log2_u32 a Ha).
  change (N.log2 U32_MAX) with 31 in H. lia.
Qed.

Lemma aset_union_wf a b : aset_wf a -> aset_wf b -> aset_wf (aset_union a b).
Proof.
  intros (A0 & A1 & A2 & A3) (B0 & B1 & B2 & B3). unfold aset_wf, aset_union. cbn [w0 w1 w2 w3].
  repeat split; apply lor_u32; assumption.
Qed.
Lemma aset_complement_wf a : aset_wf a -> aset_wf (aset_complement a).
Proof.
  intros (A0 & A1 & A2 & A3). unfold aset_wf, aset_complement. cbn [w0 w1 w2 w3].
  repeat split; apply lxor_u32; assumption.
Qed.

Lemma percent_decode_claim bs :
  fst (decode_c bs) = decode bs /\ snd (decode_c bs) <= 3 * nlen bs
  /\ (length (decode bs) <= length bs)%nat
  /\ snd (pd_cow bs) = decode bs
  /\ usv_list (snd (FormUrlencoded.decode_utf8_lossy (pd_cow bs)))
  /\ (forall s, site_lossy_reuse (decode bs) = Some s -> s = decode bs /\ utf8_valid s = true).
Proof.
  split; [exact (C04_Cost.decode_c_result bs)|]. split; [exact (C04_Cost.decode_c_linear bs)|].
  split; [exact (proj1 (C14_Views.decode_length_bounds (length bs) bs (le_n _)))|].
  split; [exact (C14_Views.pd_cow_value bs)|]. split.
  - unfold FormUrlencoded.decode_utf8_lossy. destruct (fst (pd_cow bs)); cbn [snd]; apply C15_Parse.utf8_lossy_usv.
  - intros s H. destruct (C04_Utf8.utf8_lossy_reuse (decode bs) s H) as (H1 & H2 & _). exact (conj H1 H2).
Qed.

Lemma file_host_claim (hp : list N -> result host) (hd : host -> list N) ser l :
  nlen (fst (file_host l)) <= nlen l /\ nlen (snd (file_host l)) <= nlen l
  /\ fst (C04_CostAuth.file_host_scan_c [] l) = file_host_scan [] l
  /\ snd (C04_CostAuth.file_host_scan_c [] l) <= 2 * nlen l + 1
  /\ get_file_host hp l <> PPanic /\ parse_file_host hp hd ser l <> PPanic.
Proof.
  destruct (C04_CostAuth.file_host_len l) as [L1 L2].
  destruct (C04_CostAuth.file_host_scan_c_spec l []) as (S1 & S2 & _).
  split; [exact L1|]. split; [exact L2|]. split; [exact S1|]. split; [exact S2|]. split.
  - unfold get_file_host. destruct (file_host l) as [h rem]. destruct (hp h); cbn; discriminate.
  - unfold parse_file_host. destruct (file_host l) as [h rem]. destruct h as [|c h]; [discriminate|].
    destruct (hp (c :: h)) as [ho|e]; cbn; [|discriminate].
    destruct ho; try discriminate. destruct (list_eqb _ s_localhost); discriminate.
Qed.

Lemma frag_pe_ascii bs : bytes bs -> ascii (DataUrl.to_percent_encoded bs).
Proof.
  intros H. rewrite (C17_Fragment.to_percent_encoded_bytes bs H). apply C14_Enc.encode_ascii.
  unfold bytes in *. apply Forall_forall. intros x Hx. apply filter_In in Hx.
  exact (proj1 (Forall_forall _ _) H x (proj1 Hx)).
Qed.

Lemma is_char_boundary_0 target : FormUrlencoded.is_char_boundary target 0 = true.
Proof. reflexivity. Qed.

Lemma ser_new_claim target ops : Forall C15_Ser.op_ok ops ->
  exists result, C15_Main.str_session target 0 ops = Outcome_c15.Ok result.
Proof.
  intros Ho. destruct (C15_Main.str_session_ok target 0 ops Ho) as (r & Hr & _).
  - unfold C15_Ser.nlen. lia.
  - intros (Hb & _). rewrite is_char_boundary_0 in Hb. discriminate.
  - exists r. exact Hr.
Qed.

Lemma split_prefix_str_usv p : forall l r, usv_list l -> inp_split_prefix_str p l = Some r -> usv_list r.
Proof.
  induction p as [|c p IH]; intros l r Hl H; cbn [inp_split_prefix_str] in H.
  - inversion H; subst. exact Hl.
  - destruct (inp_next l) as [[d t]|] eqn:E; [|discriminate].
    destruct (d =? c); [|discriminate]. exact (IH t r (C02_Parts.inp_next_usv l d t Hl E) H).
Qed.

Lemma input_claim l : usv_list l ->
  usv_list (input_new_no_trim l) /\ usv_list (input_new_trim_tnl l) /\ usv_list (input_new_trim_c0 l)
  /\ (inp_is_empty l = true <-> inp_next l = None)
  /\ (forall c r, inp_split_prefix_char c l = Some r -> usv_list r)
  /\ (forall p r, inp_split_prefix_str p l = Some r -> usv_list r).
Proof.
  intros Hl. split; [exact Hl|].
  split; [exact (C06_FragQuery.trim_matches_usv is_tnl l Hl)|].
  split; [exact (C06_FragQuery.trim_matches_usv is_c0_or_space l Hl)|]. split; [|split].
  - unfold inp_is_empty. destruct (inp_next l); split; intros H; try reflexivity; discriminate.
  - intros c r. unfold inp_split_prefix_char. destruct (inp_next l) as [[d t]|] eqn:E; [|discriminate].
    destruct (d =? c); [|discriminate]. intros H. inversion H; subst. exact (C02_Parts.inp_next_usv l d r Hl E).
  - intros p r. exact (split_prefix_str_usv p l r Hl).
Qed.

Theorem claims2_hold : forall q, claim2 q.
Proof.
  destruct q; cbn [claim2].
  - apply C04_Table.claims_hold.
  - exact to_u32_claim.
  - exact default_port_u16.
  - intros a b Ha Hb. split; [exact (aset_union_wf a b Ha Hb)|]. split; [exact (aset_complement_wf a Ha)|].
    intros y Hy. destruct (C14.C14_set a b y y Hy Hy) as (_ & _ & H3 & H4 & _). exact (conj H3 H4).
  - exact percent_decode_claim.
  - intros set enc iup ctx ser l He Hl.
    destruct (C04_Cost.parse_fragment_c_linear ser l Hl) as [A1 A2].
    destruct (C04_Cost.parse_query_c_linear set enc iup ser l He Hl) as [B1 B2].
    destruct (C04_Cost.parse_cbb_c_linear ctx ser l Hl) as [C1 C2]. tauto.
  - exact file_host_claim.
  - exact frag_pe_ascii.
  - exact C19.C19_get.
  - exact ser_new_claim.
  - exact input_claim.
  - intros ctx l s r Hl H. split; [exact (C02_SetScheme.parse_scheme_out_g ctx l s r H)|].
    split; [exact (C05_Sharp.parse_scheme_rest ctx l s r Hl H) | exact (C02_Parts.parse_scheme_suffix ctx l s r H)].
Qed.

(* ---------------------------------------------------------------- the table *)
Record row2 := R2 { r2_crate : string; r2_name : string; r2_kind : kind2; r2_claim : claim2_id; r2_theorem : string }.

Local Open Scope string_scope.
(* (crate, name, claim, where the claim is pinned) - every entry replaces the trivial claim of a KByType row *)
Definition overrides : list (string * string * claim2_id * string) := [
  ("url", "parser::to_u32", Q_to_u32, "C04_no_panic_inventory2 (claim Q_to_u32)");
  ("url", "parser::default_port", Q_default_port, "C04_no_panic_inventory2 (claim Q_default_port)");
  ("url", "Input::new_no_trim", Q_input, "C04_no_panic_inventory2 (claim Q_input)");
  ("url", "Input::new_trim_tab_and_newlines", Q_input, "C04_no_panic_inventory2 (claim Q_input)");
  ("url", "Input::new_trim_c0_control_and_space", Q_input, "C04_no_panic_inventory2 (claim Q_input)");
  ("url", "Input::is_empty", Q_input, "C04_no_panic_inventory2 (claim Q_input)");
  ("url", "Input::split_prefix", Q_input, "C04_no_panic_inventory2 (claim Q_input)");
  ("url", "Parser::parse_scheme", Q_parse_scheme, "C04_no_panic_inventory2 (claim Q_parse_scheme)");
  ("url", "Parser::file_host", Q_file_host, "C04_no_panic_inventory2 (claim Q_file_host) + C04_cost_authority");
  ("url", "Parser::parse_cannot_be_a_base_path", Q_parser_tail, "C04_cost_parser_tail");
  ("url", "Parser::parse_query", Q_parser_tail, "C04_cost_parser_tail");
  ("url", "Parser::parse_fragment", Q_parser_tail, "C04_cost_parser_tail");
  ("percent_encoding", "percent_decode_str", Q_percent_decode, "C04_cost_percent_encoding + C14_views_dec + C04_utf8_lossy_reuse");
  ("percent_encoding", "percent_decode", Q_percent_decode, "C04_cost_percent_encoding + C14_views_dec + C04_utf8_lossy_reuse");
  ("percent_encoding", "PercentDecode::decode_utf8", Q_percent_decode, "C04_cost_percent_encoding + C14_views_dec + C04_utf8_lossy_reuse");
  ("percent_encoding", "PercentDecode::decode_utf8_lossy", Q_percent_decode, "C04_cost_percent_encoding + C14_views_dec + C04_utf8_lossy_reuse");
  ("percent_encoding", "AsciiSet::union", Q_aset_closed, "C04_no_panic_inventory2 (claim Q_aset_closed) + C14_set");
  ("percent_encoding", "AsciiSet::complement", Q_aset_closed, "C04_no_panic_inventory2 (claim Q_aset_closed) + C14_set");
  ("form_urlencoded", "Serializer::new", Q_ser_new, "C04_no_panic_inventory2 (claim Q_ser_new) from C15_suffix");
  ("data_url", "FragmentIdentifier::to_percent_encoded", Q_frag_pe, "C04_no_panic_inventory2 (claim Q_frag_pe)");
  ("data_url", "Mime::get_parameter", Q_mime_get, "C19_get")
].
Local Close Scope string_scope.

Definition o_crate (o : string * string * claim2_id * string) : string := fst (fst (fst o)).
Definition o_name (o : string * string * claim2_id * string) : string := snd (fst (fst o)).
Definition o_claim (o : string * string * claim2_id * string) : claim2_id := snd (fst o).
Definition o_theorem (o : string * string * claim2_id * string) : string := snd o.

Definition find_override (crate name : string) : option (string * string * claim2_id * string) :=
  find (fun o => String.eqb crate (o_crate o) && String.eqb name (o_name o)) overrides.

Definition upgrade (r : C04_Table.row) : row2 :=
  match find_override (C04_Table.r_crate r) (C04_Table.r_name r) with
  | Some o => R2 (C04_Table.r_crate r) (C04_Table.r_name r) KRange (o_claim o) (o_theorem o)
  | None => R2 (C04_Table.r_crate r) (C04_Table.r_name r) (K (C04_Table.r_kind r)) (Q_old (C04_Table.r_claim r))
               (C04_Table.r_theorem r)
  end.

Definition table2 : list row2 := map upgrade C04_Table.table.

Definition row2_key (r : row2) : list N * list N :=
  (C04_Inventory.bytes_of_string (r2_crate r), C04_Inventory.bytes_of_string (r2_name r)).

Definition trivial_kind2 (k : kind2) : bool :=
  match k with K k' => C04_Table.trivial_kind k' | KRange => false end.

Definition count_kind2 (k : kind2) : nat := length (filter (fun r => kind2_eqb (r2_kind r) k) table2).

(* every regenerated public function has exactly one row, in source order *)
Theorem table2_complete : map row2_key table2 = T_C04_API.
Proof. vm_compute. reflexivity. Qed.

(* every override names exactly one row of the old table, and that row was KByType with the trivial claim; the new claim
   is not the trivial one *)
Definition overrides_sound_b : bool :=
  forallb (fun o =>
    Nat.eqb (length (filter (fun r => String.eqb (C04_Table.r_crate r) (o_crate o)
                                      && String.eqb (C04_Table.r_name r) (o_name o)
                                      && C04_Table.kind_eqb (C04_Table.r_kind r) C04_Table.KByType
                                      && C04_Table.claim_eqb_trivial (C04_Table.r_claim r)) C04_Table.table)) 1
    && negb (claim2_trivial (o_claim o))) overrides.
Theorem overrides_sound : overrides_sound_b = true.
Proof. vm_compute. reflexivity. Qed.

(* the rows that are not overridden are the rows of the old table *)
Definition table2_keeps_b : bool :=
  forallb (fun p => match r2_kind (snd p) with
                    | KRange => true
                    | K k => C04_Table.kind_eqb k (C04_Table.r_kind (fst p))
                             && String.eqb (r2_theorem (snd p)) (C04_Table.r_theorem (fst p))
                    end) (combine C04_Table.table table2).
Theorem table2_keeps : table2_keeps_b = true.
Proof. vm_compute. reflexivity. Qed.

(* exactly the rows of kind K KByType / K KDocumented / K KHarness carry the trivial claim *)
Definition kinds2_consistent_b : bool :=
  forallb (fun r => Bool.eqb (trivial_kind2 (r2_kind r)) (claim2_trivial (r2_claim r))) table2.
Theorem kinds2_consistent : kinds2_consistent_b = true.
Proof. vm_compute. reflexivity. Qed.

(* the claim of every row holds *)
Theorem table2_sound : Forall (fun r => claim2 (r2_claim r)) table2.
Proof. apply Forall_forall. intros r _. apply claims2_hold. Qed.

Theorem table2_counts :
  length table2 = 167%nat /\ length overrides = 21%nat
  /\ count_kind2 (K C04_Table.KTheorem) = 76%nat /\ count_kind2 (K C04_Table.KExact) = 20%nat
  /\ count_kind2 (K C04_Table.KOutside) = 17%nat /\ count_kind2 KRange = 21%nat
  /\ count_kind2 (K C04_Table.KByType) = 27%nat /\ count_kind2 (K C04_Table.KDocumented) = 2%nat
  /\ count_kind2 (K C04_Table.KHarness) = 4%nat.
Proof. vm_compute. repeat split. Qed.

(* the rows still carrying the trivial claim, by name (for the reader; checked) *)
Definition trivial_rows : list string := map r2_name (filter (fun r => claim2_trivial (r2_claim r)) table2).
