(* Proofs/C02_Reach10.v - histories with path_segments_mut sessions on file records (C06_SegFileCls, C06_psm_canon_file).
   ReachC9 = the histories of C02_Reach9.ReachC8 (every constructor is repeated, so steps of ReachC8 may follow a
   session) and RC9_psm_file: a path_segments_mut session on a FILE record of the history, with the premises of
   C06_psm_canon_file: session_arg_nd ops = true (no pushed segment begins, TAB / LF / CR removed, with an ASCII letter
   followed by ':' or '|'), Forall psm_op_usv ops, the session returns (u', SOk), nlen (ser u') <= u32::MAX.
   Every ReachC9 record is CanonF, hence a fixpoint of re-parsing, well-formed and ASCII; ReachC8 is inside ReachC9
   (ReachC8_C9), ReachC9 inside Reachable4 (ReachC9_Reachable4). *)
From RU Require Import Proofs.C15_Ser.
From Coq Require Import String.
From RU Require Import Base.Prelude Model.HostT Model.Host Model.UrlRecord Model.Parser Model.Setters Model.WF
  Model.QueryPairs Proofs.C02_Reach Proofs.C02_AuthParts Proofs.C02_AuthMain Proofs.C02_Hist Proofs.C02_SetHostCanon
  Proofs.C02_Reach4 Proofs.C02_Stmt4 Proofs.C02_JoinAbs Proofs.C02_JoinPath Proofs.C02_Reach6 Proofs.C02_Ovr
  Proofs.C02_Reach7 Proofs.C02_FileParse Proofs.C02_Reach8 Proofs.C02_FileJoin Proofs.C02_Reach9 Proofs.C06_Segments
  Proofs.C06_SegFileClsEx.
Open Scope N_scope.
Open Scope list_scope.

Lemma psm_usv_ok ops : Forall psm_op_usv ops -> Forall psm_op_ok ops.
Proof. apply Forall_impl. intros o H. destruct o; exact H. Qed.

Section ReachC9.
Variable dbg : bool.
Variable hp hpo : list N -> result host.
Variable hd : host -> list N.
Hypothesis HOK : HostOK2 hp hpo hd.
Hypothesis HNE : host_nonempty hp hpo.
Hypothesis HW : host_no_wdl hp hd.

Let HRT : HostRT hp hpo hd := proj1 HOK.
Let HAb : host_above hp hpo hd := proj1 (proj2 HOK).

Notation CanonF := (CanonF hp hpo hd).
Notation ReachC8 := (ReachC8 dbg hp hpo hd).

Inductive ReachC9 : url -> Prop :=
| RC9_parse ovr input u :
    usv_list input -> parse_url dbg hp hpo hd ovr None input = POk u ->
    Known_file_drive u = false -> ReachC9 u
| RC9_join_rel ovr b input u :
    ReachC9 b -> is_file b = false -> usv_list input -> rel_ref input = true ->
    parse_url dbg hp hpo hd ovr (Some b) input = POk u -> ReachC9 u
| RC9_join_scheme ovr b input u :
    ReachC9 b -> is_file b = false -> usv_list input -> nonfile_input input = true ->
    parse_url dbg hp hpo hd ovr (Some b) input = POk u -> ReachC9 u
| RC9_join_abs_any ovr b input u :
    Reachable4 dbg hp hpo hd b -> usv_list input -> abs_ref b input = true ->
    parse_url dbg hp hpo hd ovr (Some b) input = POk u -> ReachC9 u
| RC9_join_file_abs ovr b input u :
    Reachable4 dbg hp hpo hd b -> usv_list input -> file_abs_ref b input = true ->
    parse_url dbg hp hpo hd ovr (Some b) input = POk u -> Known_file_drive u = false -> ReachC9 u
| RC9_join_file ovr b input u :
    ReachC9 b -> is_file b = true -> usv_list input ->
    parse_url dbg hp hpo hd ovr (Some b) input = POk u -> Known_file_drive u = false -> ReachC9 u
| RC9_step u o u' :
    ReachC9 u -> is_file u = false -> op_args_ok o -> known_step3 dbg hp hpo hd u o = false ->
    apply_op dbg hp hpo hd u o = Some u' -> nlen (ser u') <= U32_MAX_P -> ReachC9 u'
| RC9_step_file u o u' :
    ReachC9 u -> is_file u = true -> file_op8 o = true -> op_args_ok o ->
    apply_op dbg hp hpo hd u o = Some u' -> nlen (ser u') <= U32_MAX_P -> ReachC9 u'
| RC9_step_file_path u o u' :
    ReachC9 u -> is_file u = true -> file_path_op u o = true -> op_args_ok o ->
    apply_op dbg hp hpo hd u o = Some u' -> nlen (ser u') <= U32_MAX_P -> Known_file_drive u' = false -> ReachC9 u'
| RC9_psm_file u ops u' :                    (* a path_segments_mut session on a file record *)
    ReachC9 u -> is_file u = true -> session_arg_nd ops = true -> Forall psm_op_usv ops ->
    path_segments_session dbg u ops = Some (u', SOk) -> nlen (ser u') <= U32_MAX_P -> ReachC9 u'
| RC9_qpm u ops u' :
    ReachC9 u -> Forall op_ok ops -> query_pairs_session dbg u ops = Some u' ->
    nlen (ser u') <= U32_MAX_P -> ReachC9 u'.

(* RC9_psm_file keeps the invariant 'Canon or FileCanon' *)
Theorem psm_file_CanonF u ops u' : CanonF u -> is_file u = true -> session_arg_nd ops = true -> Forall psm_op_usv ops ->
  path_segments_session dbg u ops = Some (u', SOk) -> nlen (ser u') <= U32_MAX_P -> CanonF u'.
Proof using HOK HRT.
  intros C Hf Hn Hu Hs Hb. right.
  exact (proj1 (psm_FileCanon_arg dbg hp hpo hd HRT u ops u' (CanonF_file hp hpo hd u C Hf) Hn Hu Hs Hb)).
Qed.

Theorem ReachC9_CanonF u : ReachC9 u -> CanonF u.
Proof using HOK HNE HW HRT HAb.
  induction 1 as [ovr input u Hu Hp Hk | ovr b input u Hr IH Hf Hu Ht Hp | ovr b input u Hr IH Hf Hu Ht Hp
                 | ovr b input u Hr Hu Ht Hp | ovr b input u Hr Hu Ht Hp Hk | ovr b input u Hr IH Hf Hu Hp Hk
                 | u o u' Hr IH Hf Ha Hk Ho Hb | u o u' Hr IH Hf Ht Ha Ho Hb | u o u' Hr IH Hf Ht Ha Ho Hb Hk'
                 | u ops u' Hr IH Hf Hn Hops Hs Hb
                 | u ops u' Hr IH Hops Hs Hb].
  - exact (parse_CanonF dbg hp hpo hd HOK HNE HW ovr input u Hu Hp Hk).
  - left. exact (join_rel_Canon_g dbg hp hpo hd HRT HAb ovr b input u (CanonF_nonfile hp hpo hd b IH Hf) Hu Ht Hp).
  - left. exact (join_nonfile_Canon_g dbg hp hpo hd HRT HAb ovr b input u (CanonF_nonfile hp hpo hd b IH Hf) Hu Ht Hp).
  - left. exact (join_abs_Canon_g dbg hp hpo hd HRT HAb ovr b input u Hu Ht Hp).
  - rewrite (join_file_abs_eq dbg hp hpo hd ovr b input Ht) in Hp.
    exact (parse_CanonF dbg hp hpo hd HOK HNE HW ovr input u Hu Hp Hk).
  - exact (join_file_any dbg hp hpo hd HOK HNE HW ovr b input u (CanonF_file hp hpo hd b IH Hf) Hu Hp Hk).
  - left. exact (canon_step_all dbg hp hpo hd HOK HNE u o u' (CanonF_nonfile hp hpo hd u IH Hf) Ha Hk Ho Hb).
  - exact (step_file8_CanonF dbg hp hpo hd HOK u o u' (CanonF_file hp hpo hd u IH Hf) Ht Ha Ho Hb).
  - right. exact (step_file_path_File dbg hp hpo hd u o u' (CanonF_file hp hpo hd u IH Hf) Ht Ha Ho Hb Hk').
  - exact (psm_file_CanonF u ops u' IH Hf Hn Hops Hs Hb).
  - exact (qpm_CanonF dbg hp hpo hd HOK u ops u' IH Hops Hs Hb).
Qed.

Theorem reach_partial9 u : ReachC9 u ->
  Fixpoint_of_reparse dbg hp hpo hd u /\ wf_b u = true /\ ascii (ser u).
Proof using HOK HNE HW HRT HAb. intros H. exact (CanonF_fixpoint dbg hp hpo hd HOK u (ReachC9_CanonF u H)). Qed.

Theorem ReachC9_Reachable4 u : ReachC9 u -> Reachable4 dbg hp hpo hd u.
Proof using HOK HNE HW HRT HAb.
  assert (nd : forall v, ReachC9 v -> Known_file_drive v = false)
    by (intros v Hv; exact (CanonF_not_drive hp hpo hd v (ReachC9_CanonF v Hv))).
  intros H. pose proof (nd u H) as Hd. revert Hd.
  induction H as [ovr input u Hu Hp Hk | ovr b input u Hr IH Hf Hu Ht Hp | ovr b input u Hr IH Hf Hu Ht Hp
                 | ovr b input u Hr Hu Ht Hp | ovr b input u Hr Hu Ht Hp Hk | ovr b input u Hr IH Hf Hu Hp Hk
                 | u o u' Hr IH Hf Ha Hk Ho Hb | u o u' Hr IH Hf Ht Ha Ho Hb | u o u' Hr IH Hf Ht Ha Ho Hb Hk'
                 | u ops u' Hr IH Hf Hn Hops Hs Hb
                 | u ops u' Hr IH Hops Hs Hb]; intros Hd.
  - exact (R4_parse dbg hp hpo hd ovr input u Hu Hp Hk).
  - exact (R4_join dbg hp hpo hd ovr b input u (IH (nd b Hr)) Hu Hp Hd).
  - exact (R4_join dbg hp hpo hd ovr b input u (IH (nd b Hr)) Hu Hp Hd).
  - exact (R4_join dbg hp hpo hd ovr b input u Hr Hu Hp Hd).
  - exact (R4_join dbg hp hpo hd ovr b input u Hr Hu Hp Hd).
  - exact (R4_join dbg hp hpo hd ovr b input u (IH (nd b Hr)) Hu Hp Hd).
  - exact (R4_step dbg hp hpo hd u o u' (IH (nd u Hr)) Ha Hk Ho Hd).
  - exact (R4_step dbg hp hpo hd u o u' (IH (nd u Hr)) Ha
             (file_op8_unknown dbg hp hpo hd u o (CanonF_file hp hpo hd u (ReachC9_CanonF u Hr) Hf) Ht) Ho Hd).
  - exact (R4_step dbg hp hpo hd u o u' (IH (nd u Hr)) Ha
             (file_path_op_unknown dbg hp hpo hd u o (CanonF_file hp hpo hd u (ReachC9_CanonF u Hr) Hf) Ht) Ho Hd).
  - refine (R4_step dbg hp hpo hd u (OPathSegments ops) u' (IH (nd u Hr))
              (psm_usv_ok ops Hops) (file_step_unknown dbg hp hpo hd u (OPathSegments ops) (CanonF_file hp hpo hd u (ReachC9_CanonF u Hr) Hf) eq_refl) _ Hd).
    cbn [apply_op]. rewrite Hs. reflexivity.
  - exact (R4_qpm dbg hp hpo hd u ops u' (IH (nd u Hr)) Hops Hs Hd).
Qed.

Theorem ReachC9_join_closed ovr b input u : ReachC9 b -> usv_list input ->
  parse_url dbg hp hpo hd ovr (Some b) input = POk u -> Known_file_drive u = false -> ReachC9 u.
Proof using HOK HNE HW HRT HAb.
  intros Hr Hu Hp Hk. destruct (is_file b) eqn:Hf.
  - exact (RC9_join_file ovr b input u Hr Hf Hu Hp Hk).
  - destruct (ref_trichotomy input) as [Ht | [Ht | Ht]].
    + exact (RC9_join_rel ovr b input u Hr Hf Hu Ht Hp).
    + exact (RC9_join_scheme ovr b input u Hr Hf Hu Ht Hp).
    + exact (RC9_join_file_abs ovr b input u (ReachC9_Reachable4 b Hr) Hu (nonfile_base_file_abs b input Hf Ht) Hp Hk).
Qed.

Theorem ReachC8_C9 u : ReachC8 u -> ReachC9 u.
Proof.
  intros H. induction H as [ovr input u Hu Hp Hk | ovr b input u Hr IH Hf Hu Ht Hp | ovr b input u Hr IH Hf Hu Ht Hp
                 | ovr b input u Hr Hu Ht Hp | ovr b input u Hr Hu Ht Hp Hk | ovr b input u Hr IH Hf Hu Hp Hk
                 | u o u' Hr IH Hf Ha Hk Ho Hb | u o u' Hr IH Hf Ht Ha Ho Hb | u o u' Hr IH Hf Ht Ha Ho Hb Hk'
                 | u ops u' Hr IH Hops Hs Hb].
  - exact (RC9_parse ovr input u Hu Hp Hk).
  - exact (RC9_join_rel ovr b input u IH Hf Hu Ht Hp).
  - exact (RC9_join_scheme ovr b input u IH Hf Hu Ht Hp).
  - exact (RC9_join_abs_any ovr b input u Hr Hu Ht Hp).
  - exact (RC9_join_file_abs ovr b input u Hr Hu Ht Hp Hk).
  - exact (RC9_join_file ovr b input u IH Hf Hu Hp Hk).
  - exact (RC9_step u o u' IH Hf Ha Hk Ho Hb).
  - exact (RC9_step_file u o u' IH Hf Ht Ha Ho Hb).
  - exact (RC9_step_file_path u o u' IH Hf Ht Ha Ho Hb Hk').
  - exact (RC9_qpm u ops u' IH Hops Hs Hb).
Qed.
End ReachC9.

(* non-vacuity, on the host model (idna_clean) *)
(* file:///tmp/a -> path_segments_mut: push("b c") = file:///tmp/a/b%20c -> set_fragment("z"); a longer session with pop,
   extend and a dot segment on a record with a host; the premises of RC9_psm_file on these sessions; the excluded
   session clear, push("C|") (result file:///C:, in Known_file_drive) *)
Definition m_session (start : string) (ops : list psm_op) : option (url * status) :=
  match parse_url true mhp host_parse_opaque host_display None None (B start) with
  | POk u => path_segments_session true u ops
  | _ => None
  end.
Definition m_session_ok (start : string) (ops : list psm_op) (expect : string) : bool :=
  match m_session start ops with
  | Some (u, SOk) => list_eqb (ser u) (B expect) && m_fix u && is_file u && negb (Known_file_drive u)
  | _ => false
  end.

Example reach9_example :
  m_session_ok "file:///tmp/a" [PPush (B "b c")] "file:///tmp/a/b%20c" = true
  /\ m_is (m_hist "file:///tmp/a" [OPathSegments [PPush (B "b c")]; OSetFragment (Some (B "z"))]) "file:///tmp/a/b%20c#z" = true
  /\ m_session_ok "file://h.x/a/b?q#f" [PPop; PPush (B "c d"); PExtend [B ".."; B "e/f"]; PPopIfEmpty] "file://h.x/a/c%20d/e%2Ff?q#f" = true
  /\ m_is (m_hist "file://h.x/a/b?q#f" [OPathSegments [PPop; PPush (B "c d"); PExtend [B ".."; B "e/f"]; PPopIfEmpty]; OSetQuery None;
                                        OPathSegments [PClear; PPush (B "x")]]) "file://h.x/x#f" = true
  /\ session_arg_nd [PPush (B "b c")] && session_arg_nd [PPop; PPush (B "c d"); PExtend [B ".."; B "e/f"]; PPopIfEmpty]
     && session_arg_nd [PClear; PPush (B "x")] && negb (session_arg_nd [PClear; PPush (B "C|")]) = true
  /\ match m_session "file:///tmp/a" [PClear; PPush (B "C|")] with
     | Some (u, SOk) => list_eqb (ser u) (B "file:///C:") && Known_file_drive u
     | _ => false
     end = true.
Proof. vm_compute. repeat split. Qed.

(* a ReachC9 history on the host model, constructor by constructor: parse file:///tmp/a (RC9_parse), session push("b c")
   (RC9_psm_file), set_fragment("z") (RC9_step_file); by reach_partial9 with the host model (C02_reach_partial9_model) the last record is a fixpoint *)
Example reach9_history : exists u0 u1 u2,
  parse_url true mhp host_parse_opaque host_display None None (B "file:///tmp/a") = POk u0
  /\ path_segments_session true u0 [PPush (B "b c")] = Some (u1, SOk)
  /\ apply_op true mhp host_parse_opaque host_display u1 (OSetFragment (Some (B "z"))) = Some u2
  /\ ser u2 = B "file:///tmp/a/b%20c#z"
  /\ ReachC9 true mhp host_parse_opaque host_display u2.
Proof.
  eexists. eexists. eexists.
  split; [vm_compute; reflexivity|]. split; [vm_compute; reflexivity|]. split; [vm_compute; reflexivity|].
  split; [vm_compute; reflexivity|].
  eapply RC9_step_file with (o := OSetFragment (Some (B "z"))).
  - eapply RC9_psm_file with (ops := [PPush (B "b c")]).
    + eapply RC9_parse with (ovr := None) (input := B "file:///tmp/a").
      * repeat constructor; unfold is_usv; lia.
      * vm_compute. reflexivity.
      * vm_compute. reflexivity.
    + vm_compute. reflexivity.
    + vm_compute. reflexivity.
    + constructor; [|constructor]. cbn [psm_op_usv]. repeat constructor; unfold is_usv; lia.
    + vm_compute. reflexivity.
    + vm_compute. discriminate.
  - vm_compute. reflexivity.
  - reflexivity.
  - cbn [op_args_ok usv_opt]. repeat constructor; unfold is_usv; lia.
  - vm_compute. reflexivity.
  - vm_compute. discriminate.
Qed.
