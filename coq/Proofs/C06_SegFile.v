(* Proofs/C06_SegFile.v - whole path_segments_mut sessions on FILE URLs, exactly.
   On a file URL parse_path (the worker of push / extend) has three extra steps: (1) a '/' inserted behind a normalized
   drive letter that is the whole path so far, (2) the rewriting of a drive-letter first segment "C|" to "C:",
   (3) the collapse of leading slashes of the path.
   Invariant of the session (file_path_ok): the path text is exactly "/" or starts with '/' followed by a byte other
   than '/' (true of every parsed file URL); clear / pop / pop_if_empty / push / extend all keep it.
   On a path longer than "/" none of (1)-(3) can happen (C06_SegPush.parse_path_segment_exact_file); on the root path "/"
   (1) cannot happen when no flush of the pending text (at a TAB / LF / CR of the argument) leaves exactly a drive
   letter "C:" in front of a further character, and (2) changes nothing unless the written text is a letter followed
   by '|' (root_seg_ok); (3) never happens, the first written byte is not a '/'.  Under that computable side condition on the pushes made at the root (file_session_ok) the
   session returns with_path u (session_text STFile ...), like on the other scheme types. *)
From RU Require Import Base.Prelude Base.Utf8 Base.Utf8Facts Model.AsciiSet Gen.Tables Model.PercentEncoding
  Model.HostT Model.UrlRecord Model.Parser Model.Setters Model.WF
  Proofs.C14_Set Proofs.C14_Enc Proofs.C14_Views Proofs.C20_Plain
  Proofs.ListN Proofs.C03_WF Proofs.C06_List Proofs.C06_WFI Proofs.C06_Tail Proofs.C06_Steps Proofs.C06_FragQuery
  Proofs.C06_Suffix Proofs.C06_Front Proofs.C06_PathParser Proofs.C06_Path Proofs.C06_Segments Proofs.C06_SegPush.

Definition fpi_b (P : list N) : bool :=
  match P with a :: c :: _ => (a =? 47) && negb (c =? 47) | _ => false end.
Definition file_path_ok (P : list N) : bool :=
  match P with [a] => a =? 47 | _ => fpi_b P end.

Lemma fpi_b_inv P : fpi_b P = true -> exists c r, P = 47 :: c :: r /\ c <> 47.
Proof.
  destruct P as [|a [|c r]]; cbn [fpi_b]; try discriminate. intros H. apply andb_true_iff in H. destruct H as [H1 H2].
  apply N.eqb_eq in H1. apply negb_true_iff in H2. apply N.eqb_neq in H2. subst a. exists c, r. split; [reflexivity | exact H2].
Qed.

Lemma fpi_b_intro c r : c <> 47 -> fpi_b (47 :: c :: r) = true.
Proof. intros H. cbn [fpi_b]. apply N.eqb_neq in H. rewrite H. reflexivity. Qed.

Lemma file_path_ok_inv P : file_path_ok P = true -> P = [47] \/ fpi_b P = true.
Proof.
  destruct P as [|a [|c r]]; cbn [file_path_ok]; try discriminate.
  - intros H. apply N.eqb_eq in H. subst a. left. reflexivity.
  - intros H. right. exact H.
Qed.

Lemma fpi_file_path_ok P : fpi_b P = true -> file_path_ok P = true.
Proof. destruct P as [|a [|c r]]; cbn [file_path_ok fpi_b]; try discriminate. trivial. Qed.

Lemma fpi_b_file_path_inv P : fpi_b P = true -> 1 < nlen P /\ file_path_inv P.
Proof.
  intros H. destruct (fpi_b_inv P H) as (c & r & -> & Hc). split.
  - rewrite !nlen_cons. lia.
  - exists c, r. split; [reflexivity | exact Hc].
Qed.

Lemma nfirstn_cons n a l : 0 < n -> nfirstn n (a :: l) = a :: nfirstn (n - 1) l.
Proof.
  intros H. unfold nfirstn. replace (N.to_nat n) with (S (N.to_nat (n - 1))) by lia. reflexivity.
Qed.

(* a non-empty prefix of a good path text is good *)
Lemma prefix_ok P k : file_path_ok P = true -> 1 <= k -> file_path_ok (nfirstn k P) = true.
Proof.
  intros H Hk. destruct (file_path_ok_inv P H) as [->|H2].
  - rewrite nfirstn_all by (change (nlen [47]) with 1; lia). reflexivity.
  - destruct (fpi_b_inv P H2) as (c & r & -> & Hc). rewrite nfirstn_cons by lia.
    destruct (N.eq_dec k 1) as [->|Hk1].
    + reflexivity.
    + rewrite nfirstn_cons by lia. apply fpi_file_path_ok. apply fpi_b_intro. exact Hc.
Qed.

(* the first byte of the text push writes is never '/' *)
Lemma seg_text_head st seg b t : seg_text st seg = b :: t -> b <> 47.
Proof.
  unfold seg_text. destruct (seg_set_facts st) as (_ & _ & F47).
  destruct (utf8_encode (strip_tnl seg)) as [|x r]; [discriminate|]. rewrite encode_cons. unfold enc1, enc_byte_spec.
  destruct (should_encode (seg_set st) x) eqn:E; cbn [app]; intros H; inversion H; subst.
  - lia.
  - intros ->. congruence.
Qed.

Lemma drop_slash_seg_text st seg : drop_while is_slash (seg_text st seg) = seg_text st seg.
Proof.
  destruct (seg_text st seg) as [|b t] eqn:E; [reflexivity|]. cbn [drop_while]. unfold is_slash.
  pose proof (seg_text_head st seg b t E) as Hb. apply N.eqb_neq in Hb. rewrite Hb. reflexivity.
Qed.

(* the side condition on a push made at the root path *)
Definition etext (l : list N) : list N := encode (seg_set STFile) (utf8_encode l).

Lemma etext_app a b : etext (a ++ b) = etext a ++ etext b.
Proof. unfold etext. rewrite utf8_encode_app, encode_app. reflexivity. Qed.

(* parse_path's input iterator drops TAB / LF / CR, but the loop FLUSHES the pending text at each of them; a later
   character that finds the flushed text to be exactly a normalized drive letter ("C:") gets a '/' in front.
   flush_ok acc pend l: that never happens on the input l (acc = the text flushed so far, pend = pending, reversed) *)
Fixpoint flush_ok (acc pend l : list N) : bool :=
  match l with
  | [] => true
  | c :: r => if is_tnl c then flush_ok (acc ++ rev pend) [] r
              else negb (is_normalized_wdl (etext acc)) && flush_ok acc (c :: pend) r
  end.
(* the written text is a letter followed by '|' (rewritten to ':' when it is the first segment) *)
Definition wdl_bar (t : list N) : bool := match t with [a; b] => is_alpha a && (b =? 124) | _ => false end.
Definition root_seg_ok (seg : list N) : bool := flush_ok [] [] seg && negb (wdl_bar (seg_text STFile seg)).

Lemma is_wdl_cases t : is_wdl t = true -> exists a b, t = [a; b] /\ is_alpha a = true /\ (b = 58 \/ b = 124).
Proof.
  unfold is_wdl. intros H. apply andb_true_iff in H. destruct H as [H1 H2].
  destruct t as [|a [|b [|c r]]]; try discriminate H1. unfold starts_with_wdl in H2. rewrite andb_true_r in H2.
  apply andb_true_iff in H2. destruct H2 as [Ha Hb]. exists a, b. split; [reflexivity|]. split; [exact Ha|]. lia.
Qed.

(* parse_path in the PathSegmentSetter context on a file URL, from the root path *)
Lemma ppl_root dbg ps x : nlen x = ps + 1 -> forall l acc ss pend hh, usv_list (rev pend ++ l) ->
  flush_ok acc pend l = true ->
  parse_path_loop dbg CPathSegmentSetter STFile ps l (x ++ etext acc) ss pend hh
  = (' (s2, hh') <~ finish_segment dbg STFile ps (x ++ etext (acc ++ rev pend ++ strip_tnl l)) ss false hh ;;
     POk (file_path_fixup STFile ps s2, hh', [])).
Proof.
  intros Lx. induction l as [|c r IH]; intros acc ss pend hh Hu Hok.
  - cbn [parse_path_loop strip_tnl filter]. rewrite app_nil_r in *. rewrite push_pending_enc by exact Hu.
    fold (etext (rev pend)). rewrite <- app_assoc, <- etext_app. reflexivity.
  - apply usv_list_app in Hu. destruct Hu as [Hu1 Hu2]. inversion Hu2 as [|? ? Hc Hr]; subst.
    cbn [parse_path_loop]. cbn [flush_ok] in Hok.
    assert (strip_tnl (c :: r) = if is_tnl c then strip_tnl r else c :: strip_tnl r) as Es.
    { unfold strip_tnl. cbn [filter]. unfold not_tnl at 1. destruct (is_tnl c); reflexivity. }
    rewrite Es. destruct (is_tnl c) eqn:Et.
    + rewrite push_pending_enc by exact Hu1. fold (etext (rev pend)). rewrite <- app_assoc, <- etext_app.
      rewrite (IH (acc ++ rev pend) ss [] hh Hr Hok). cbn [rev app]. rewrite <- app_assoc. reflexivity.
    + apply andb_true_iff in Hok. destruct Hok as [Hn Hok]. apply negb_true_iff in Hn.
      cbn [ctx_eqb negb andb]. rewrite andb_false_r.
      rewrite <- Lx. rewrite nskipn_app_exact. rewrite Hn. rewrite andb_false_r.
      rewrite (IH acc ss (c :: pend) hh).
      * cbn [rev]. rewrite <- !app_assoc. reflexivity.
      * cbn [rev]. rewrite <- app_assoc. apply usv_list_app. split; [exact Hu1 | constructor; assumption].
      * exact Hok.
Qed.

(* one segment pushed at the root path "/" *)
Theorem parse_path_segment_exact_root dbg ps s0 seg : nlen s0 = ps -> usv_list seg ->
  seg_skipped (strip_tnl seg) = false -> root_seg_ok seg = true ->
  exists hh, parse_path dbg CPathSegmentSetter STFile true ps (s0 ++ [47]) seg = POk ((s0 ++ [47]) ++ seg_text STFile seg, hh, []).
Proof.
  intros Hps Hu Hk Hr. unfold parse_path. unfold root_seg_ok in Hr. apply andb_true_iff in Hr. destruct Hr as [Hfl Hbar].
  apply negb_true_iff in Hbar.
  assert (nlen (s0 ++ [47]) = ps + 1) as Lx by (rewrite nlen_app; change (nlen [47]) with 1; lia).
  set (x := s0 ++ [47]) in *.
  pose proof (ppl_root dbg ps x Lx seg [] (nlen x) [] true Hu Hfl) as Hl.
  change (etext []) with (@nil N) in Hl. rewrite app_nil_r in Hl. rewrite Hl. clear Hl.
  cbn [rev app]. change (etext (strip_tnl seg)) with (seg_text STFile seg).
  destruct (seg_text_not_dots STFile seg Hu Hk) as [Hd Hs].
  assert (exists hh, finish_segment dbg STFile ps (x ++ seg_text STFile seg) (nlen x) false true = POk (x ++ seg_text STFile seg, hh)) as [hh Ef].
  { unfold finish_segment. rewrite slice_o_some by (rewrite nlen_app; lia). cbn [of_option pbind].
    rewrite nskipn_app_exact. rewrite nfirstn_all by (rewrite nlen_app; lia). rewrite Hd, Hs.
    destruct (is_wdl (seg_text STFile seg)) eqn:Ew.
    - destruct (is_wdl_cases _ Ew) as (a & b & Et & Ha & Hb). rewrite Et in *.
      assert (b = 58) as ->.
      { destruct Hb as [Hb|Hb]; [exact Hb|]. subst b. cbn [wdl_bar] in Hbar. rewrite Ha in Hbar. discriminate Hbar. }
      exists false. cbn [st_is_file andb]. rewrite Lx. rewrite N.eqb_refl. cbn [andb].
      unfold truncate. rewrite <- Lx. rewrite nfirstn_app_exact. reflexivity.
    - exists true. rewrite andb_false_r. reflexivity. }
  rewrite Ef. cbn [pbind]. exists hh. f_equal. f_equal. f_equal.
  unfold file_path_fixup. cbn [st_is_file]. unfold x. rewrite <- !app_assoc. rewrite <- Hps.
  rewrite nfirstn_app_exact, nskipn_app_exact. cbn [app drop_while]. change (is_slash 47) with true. cbv iota.
  rewrite drop_slash_seg_text. reflexivity.
Qed.

(* push / extend on the path text of a file URL *)
Definition push_ok (P seg : list N) : bool := seg_skipped (strip_tnl seg) || fpi_b P || root_seg_ok seg.
Fixpoint extend_ok (P : list N) (segs : list (list N)) : bool :=
  match segs with [] => true | s :: r => push_ok P s && extend_ok (push_text STFile P s) r end.
Definition op_ok (P : list N) (o : psm_op) : bool :=
  match o with PPush s => push_ok P s | PExtend ss => extend_ok P ss | _ => true end.
(* the computable side condition on a session that starts on the path text P: every push made while the path is
   exactly "/" has a segment that is skipped or whose text does not start with a letter followed by ':' or '|' *)
Fixpoint file_session_ok (P : list N) (ops : list psm_op) : bool :=
  match ops with [] => true | o :: r => op_ok P o && file_session_ok (op_text STFile P o) r end.

Lemma push_text_ok P seg : file_path_ok P = true -> file_path_ok (push_text STFile P seg) = true.
Proof.
  intros H. unfold push_text. destruct (seg_skipped (strip_tnl seg)); [exact H|].
  destruct (file_path_ok_inv P H) as [->|H2].
  - change (nlen [47]) with 1. cbn [N.ltb N.eqb N.compare Pos.compare Pos.compare_cont orb app].
    replace ((1 <? 1) || (1 =? 0)) with false by reflexivity.
    destruct (seg_text STFile seg) as [|b t] eqn:E; [reflexivity|]. cbn [app].
    apply fpi_file_path_ok. apply fpi_b_intro. exact (seg_text_head STFile seg b t E).
  - destruct (fpi_b_inv P H2) as (c & r & -> & Hc).
    destruct ((1 <? nlen (47 :: c :: r)) || (nlen (47 :: c :: r) =? 0)); cbn [app];
      apply fpi_file_path_ok; apply fpi_b_intro; exact Hc.
Qed.

Lemma extend_text_ok segs : forall P, file_path_ok P = true -> file_path_ok (extend_text STFile P segs) = true.
Proof.
  induction segs as [|s r IH]; intros P H; cbn [extend_text fold_left]; [exact H|].
  apply IH. apply push_text_ok. exact H.
Qed.

Lemma op_text_ok P o : file_path_ok P = true -> file_path_ok (op_text STFile P o) = true.
Proof.
  intros H. destruct o; cbn [op_text].
  - unfold clear_text. apply prefix_ok; [exact H | lia].
  - unfold pop_if_empty_text. destruct (nlen P <=? 1) eqn:E1; [exact H|].
    destruct (ends_with_byte 47 (nskipn 1 P)); [|exact H]. apply prefix_ok; [exact H | lia].
  - unfold pop_text. destruct (nlen P <=? 1); [exact H|]. apply prefix_ok; [exact H | lia].
  - apply push_text_ok. exact H.
  - apply extend_text_ok. exact H.
Qed.

Section ExactFile.
Variables (dbg : bool) (s0 : list N) (ps : N).
Hypothesis Hps : nlen s0 = ps.

Lemma extend_loop_exact_file segs : forall P, file_path_ok P = true -> Forall usv_list segs -> extend_ok P segs = true ->
  psm_extend_loop dbg STFile ps (s0 ++ P) segs = Some (s0 ++ extend_text STFile P segs).
Proof.
  induction segs as [|seg rest IH]; intros P HP Hu Hok; cbn [psm_extend_loop extend_text fold_left]; [reflexivity|].
  pose proof (Forall_inv Hu) as Hu1. pose proof (Forall_inv_tail Hu) as Hu2.
  cbn [extend_ok] in Hok. apply andb_true_iff in Hok. destruct Hok as [Hok1 Hok2].
  pose proof (push_text_ok P seg HP) as HP2.
  unfold push_text at 2. unfold push_text in Hok2, HP2. rewrite psm_skips_strip. unfold push_ok in Hok1.
  destruct (seg_skipped (strip_tnl seg)) eqn:Hk1.
  - apply IH; assumption.
  - cbn [orb] in Hok1.
    replace ((ps + 1 <? nlen (s0 ++ P)) || (nlen (s0 ++ P) =? ps)) with ((1 <? nlen P) || (nlen P =? 0))
      by (rewrite nlen_app, Hps; lia).
    destruct (file_path_ok_inv P HP) as [EP|HP1].
    + subst P. replace (fpi_b [47]) with false in Hok1 by reflexivity. cbn [orb] in Hok1.
      change (nlen [47]) with 1 in *. replace ((1 <? 1) || (1 =? 0)) with false in * by reflexivity.
      destruct (parse_path_segment_exact_root dbg ps s0 seg Hps Hu1 Hk1 Hok1) as [hh1 Er]. rewrite Er. cbn [unpres bindo].
      rewrite <- app_assoc. apply IH; assumption.
    + destruct (fpi_b_file_path_inv P HP1) as [HL Hinv].
      replace ((1 <? nlen P) || (nlen P =? 0)) with true in * by (symmetry; apply orb_true_iff; left; apply N.ltb_lt; lia).
      rewrite <- app_assoc.
      rewrite (parse_path_segment_exact_file dbg ps s0 P seg Hps HL Hinv Hu1 Hk1). cbn [unpres bindo].
      replace ((s0 ++ P ++ [47]) ++ seg_text STFile seg) with (s0 ++ (P ++ [47]) ++ seg_text STFile seg)
        by (rewrite <- !app_assoc; reflexivity).
      apply IH; assumption.
Qed.

End ExactFile.

Lemma file_session_ok_for ops : forall P, file_session_ok P ops = true ->
  session_ok_for STFile (fun P ss => extend_ok P ss = true) P ops.
Proof.
  induction ops as [|o r IH]; intros P H; cbn [session_ok_for]; [exact I|].
  cbn [file_session_ok] in H. apply andb_true_iff in H. destruct H as [H1 H2]. split; [|apply IH; exact H2].
  destruct o; cbn [op_ok_for op_ok] in *; try exact I; [cbn [extend_ok]; rewrite H1; reflexivity | exact H1].
Qed.

(* a whole session on a file URL, exactly *)
Theorem path_segments_session_exact_file dbg u ops u' : wf_b u = true ->
  byte_eqb (ser u) (scheme_end u + 1) 47 = true -> st_of u = STFile ->
  file_path_ok (path_bytes u) = true -> file_session_ok (path_bytes u) ops = true ->
  Forall psm_op_usv ops -> path_segments_session dbg u ops = Some (u', SOk) ->
  u' = with_path u (session_text STFile (path_bytes u) ops).
Proof.
  intros W Hsl Hfile HP0 Hsok Hops H. pose proof (wf_se_lt_ps u W). pose proof (path_start_le_len u W).
  rewrite <- Hfile.
  apply (session_exact dbg u ops u' (fun P => file_path_ok P = true) (fun P ss => extend_ok P ss = true)); try assumption.
  - intros P segs HP Hu Hok. rewrite Hfile. apply extend_loop_exact_file; [apply nlen_nfirstn; lia | | |]; assumption.
  - intros P o HP. rewrite Hfile. apply op_text_ok. exact HP.
  - rewrite Hfile. apply file_session_ok_for. exact Hsok.
Qed.

(* sessions that only push / extend on a path longer than "/" meet the side condition *)
Definition push_only (o : psm_op) : bool := match o with PPush _ | PExtend _ => true | _ => false end.

Lemma push_text_fpi P seg : fpi_b P = true -> fpi_b (push_text STFile P seg) = true.
Proof.
  intros H. unfold push_text. destruct (seg_skipped (strip_tnl seg)); [exact H|].
  destruct (fpi_b_inv P H) as (c & r & -> & Hc).
  destruct ((1 <? nlen (47 :: c :: r)) || (nlen (47 :: c :: r) =? 0)); cbn [app]; apply fpi_b_intro; exact Hc.
Qed.

Lemma extend_fpi segs : forall P, fpi_b P = true -> fpi_b (extend_text STFile P segs) = true /\ extend_ok P segs = true.
Proof.
  induction segs as [|s r IH]; intros P H; cbn [extend_text fold_left extend_ok]; [split; [exact H | reflexivity]|].
  destruct (IH (push_text STFile P s) (push_text_fpi P s H)) as [I1 I2]. split; [exact I1|].
  unfold push_ok. rewrite H, I2. rewrite orb_true_r. reflexivity.
Qed.

Lemma push_only_session_ok ops : forall P, fpi_b P = true -> forallb push_only ops = true -> file_session_ok P ops = true.
Proof.
  induction ops as [|o rest IH]; intros P H Ho; cbn [file_session_ok]; [reflexivity|].
  cbn [forallb] in Ho. apply andb_true_iff in Ho. destruct Ho as [Ho1 Ho2].
  destruct o; try discriminate Ho1; cbn [op_ok op_text].
  - unfold push_ok. rewrite H. rewrite orb_true_r. cbn [orb andb]. apply IH; [apply push_text_fpi; exact H | exact Ho2].
  - destruct (extend_fpi ss P H) as [I1 I2]. rewrite I2. cbn [andb]. apply IH; [exact I1 | exact Ho2].
Qed.

Lemma session_text_ok ops : forall P, file_path_ok P = true -> file_path_ok (session_text STFile P ops) = true.
Proof.
  induction ops as [|o r IH]; intros P H; cbn [session_text fold_left]; [exact H|].
  apply IH. apply op_text_ok. exact H.
Qed.
