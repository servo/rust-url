(* Proofs/C17_Final.v - C17_statement holds: the hypothesis scheme_of_parse of
   C17_Known.statement_modulo_scheme follows from C17_Scheme.parse_url_scheme. *)
From RU Require Import Base.Prelude
  Model.DataUrlTie
  Proofs.C17_Main Proofs.C17_Known Proofs.C17_Scheme.

Theorem scheme_of_parse_holds : scheme_of_parse.
Proof.
  intros dbg hp ho hd s sch rem u Hs Hp Hu Hd. unfold url_is_data in Hd.
  rewrite (parse_url_scheme dbg hp ho hd None s sch rem u Hp Hu) in Hd. apply list_eqb_spec. exact Hd.
Qed.

Theorem c17_statement_holds : C17_statement.
Proof. exact (statement_modulo_scheme scheme_of_parse_holds). Qed.
