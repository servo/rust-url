(* Proofs/C06_Tail.v - records that differ only behind a cut point a at or behind path_start (behind the two
   slashes a "/." marker protects: Hmk; tail_path asks path_end u <= a for the path to read the same):
   the invariant and every accessor in front of the cut carry over.  The four elementary steps the
   fragment / query / path setters are made of (cut the fragment, cut the query, append a query,
   append a fragment) and the opaque-path space stripping are instances. *)
From RU Require Import Base.Prelude Model.UrlRecord Model.Setters Model.WF Proofs.ListN Proofs.C03_WF
  Proofs.C06_List Proofs.C06_WFI.

Lemma css_bytes l i : starts_with s_css (nskipn i l) = true ->
  nnth l i = Some 58 /\ nnth l (i + 1) = Some 47 /\ nnth l (i + 2) = Some 47.
Proof.
  intros H. apply starts_with_split in H.
  assert (forall k, nnth l (i + k) = nnth (s_css ++ skipn (length s_css) (nskipn i l)) k) as E.
  { intros k. rewrite <- H. symmetry. apply nnth_nskipn. }
  repeat split.
  - rewrite <- (N.add_0_r i). rewrite E. reflexivity.
  - rewrite E. reflexivity.
  - rewrite E. reflexivity.
Qed.

Lemma ss_bytes l i : starts_with s_ss (nskipn i l) = true -> nnth l i = Some 47 /\ nnth l (i + 1) = Some 47.
Proof.
  intros H. apply starts_with_split in H.
  assert (forall k, nnth l (i + k) = nnth (s_ss ++ skipn (length s_ss) (nskipn i l)) k) as E.
  { intros k. rewrite <- H. symmetry. apply nnth_nskipn. }
  split.
  - rewrite <- (N.add_0_r i). rewrite E. reflexivity.
  - rewrite E. reflexivity.
Qed.

Lemma byte_eqb_true_iff l i c : byte_eqb l i c = true <-> nnth l i = Some c.
Proof.
  split; [apply byte_eqb_nnth|]. unfold byte_eqb. intros ->. apply N.eqb_refl.
Qed.

Lemma byte_eqb_false_of l i c : nnth l i <> Some c -> byte_eqb l i c = false.
Proof.
  intros H. destruct (byte_eqb l i c) eqn:E; [|reflexivity]. apply byte_eqb_nnth in E. contradiction.
Qed.

(* at i the list ends or shows '?' or '#': no other byte stands there *)
Lemma end_byte_not (l : list N) i c : i = nlen l \/ byte_eqb l i 63 = true \/ byte_eqb l i 35 = true ->
  c <> 63 -> c <> 35 -> nnth l i <> Some c.
Proof.
  intros [T|[T|T]] H1 H2 E.
  - apply nnth_lt in E. lia.
  - apply byte_eqb_nnth in T. congruence.
  - apply byte_eqb_nnth in T. congruence.
Qed.

Definition same_main (u u' : url) : Prop :=
  scheme_end u' = scheme_end u /\ username_end u' = username_end u /\ host_start u' = host_start u
  /\ host_end u' = host_end u /\ hosti u' = hosti u /\ port u' = port u /\ path_start u' = path_start u.

(* consequences of wf_b used below *)
Lemma wf_se_lt_ps u : wf_b u = true -> scheme_end u < path_start u.
Proof.
  intros H. destruct (has_authority_b u) eqn:Ha.
  - pose proof (wf_auth_facts u H Ha) as F.
    pose proof (af_ue F); pose proof (af_hs F); pose proof (af_he F); pose proof (af_ps F). lia.
  - pose proof (wf_noauth_facts u H Ha) as F. destruct (nf_ps F) as [E|(E & _)]; lia.
Qed.

Lemma wf_ps_le_path_end u : wf_b u = true -> path_start u <= path_end u /\ path_end u <= nlen (ser u).
Proof.
  intros H. pose proof (wf_qf_facts u H) as Q. pose proof (path_start_le_len u H).
  pose proof (qf_q Q) as Q1. pose proof (qf_f Q) as Q2. unfold path_end.
  destruct (query_start u); [lia|]. destruct (fragment_start u); lia.
Qed.

(* the "/." marker is followed by two slashes that belong to the path *)
Lemma wf_marker_in_path u : wf_b u = true -> has_authority_b u = false -> path_start u = scheme_end u + 3 ->
  path_start u + 2 <= path_end u.
Proof.
  intros H Ha E. pose proof (wf_noauth_facts u H Ha) as F. pose proof (wf_qf_facts u H) as Q.
  destruct (nf_ps F) as [E'|(_ & _ & _ & SS)]; [lia|].
  apply ss_bytes in SS. destruct SS as [S1 S2].
  pose proof (nnth_lt _ _ _ S1). pose proof (nnth_lt _ _ _ S2).
  pose proof (qf_q Q) as Q1. pose proof (qf_f Q) as Q2. unfold path_end.
  destruct (query_start u) as [q|].
  - destruct Q1 as (Q1a & Q1b & _). apply byte_eqb_nnth in Q1b.
    destruct (N.eq_dec q (path_start u)); [subst; congruence|].
    destruct (N.eq_dec q (path_start u + 1)); [subst; congruence|]. lia.
  - destruct (fragment_start u) as [f|]; [|lia].
    destruct Q2 as (Q2a & Q2b & _). apply byte_eqb_nnth in Q2b.
    destruct (N.eq_dec f (path_start u)); [subst; congruence|].
    destruct (N.eq_dec f (path_start u + 1)); [subst; congruence|]. lia.
Qed.

Section TailChange.
Variables (u u' : url) (a : N).
Hypothesis Hwf : wf_b u = true.
Hypothesis Hmain : same_main u u'.
Hypothesis Hpre : agree_pre a (ser u) (ser u').
Hypothesis Hps0 : path_start u <= a.
(* on the authority-less layout with the "/." marker the cut lies behind the "//" the marker protects *)
Hypothesis Hmk : username_end u = scheme_end u + 1 -> path_start u = scheme_end u + 3 -> path_start u + 2 <= a.
Hypothesis Hlen : a <= nlen (ser u).
Hypothesis Hlen' : a <= nlen (ser u').
(* what stands at the cut in the new serialization: nothing, '?' or '#' *)
Hypothesis Htail : a = nlen (ser u') \/ byte_eqb (ser u') a 63 = true \/ byte_eqb (ser u') a 35 = true.

Lemma tail_not c : c <> 63 -> c <> 35 -> nnth (ser u') a <> Some c.
Proof. exact (end_byte_not (ser u') a c Htail). Qed.

Lemma tail_ps_le_a : path_start u <= a.
Proof. exact Hps0. Qed.

Lemma tail_has_authority : has_authority_b u' = has_authority_b u.
Proof.
  destruct Hmain as (E1 & _). pose proof tail_ps_le_a as Hps. pose proof (wf_se_lt_ps u Hwf) as Hse.
  destruct (N.le_gt_cases (scheme_end u + 3) a) as [Hc|Hc].
  - apply (has_authority_b_pre a); assumption.
  - destruct (has_authority_b u) eqn:Ha.
    + pose proof (wf_auth_facts u Hwf Ha) as F.
      pose proof (af_ue F); pose proof (af_hs F); pose proof (af_he F); pose proof (af_ps F). lia.
    + destruct (has_authority_b u') eqn:Ha'; [|reflexivity]. exfalso.
      unfold has_authority_b in Ha'. rewrite E1 in Ha'. apply css_bytes in Ha'. destruct Ha' as (_ & B1 & B2).
      assert (a = scheme_end u + 1 \/ a = scheme_end u + 2) as [Ea|Ea] by lia.
      * apply (tail_not 47); [lia | lia |]. rewrite Ea. exact B1.
      * apply (tail_not 47); [lia | lia |]. rewrite Ea. exact B2.
Qed.

Lemma tail_wf : qf_ok u' -> wf_b u' = true.
Proof.
  intros Hqf. pose proof Hmain as (E1 & E2 & E3 & E4 & E5 & E6 & E7).
  pose proof tail_ps_le_a as Hps. pose proof (wf_se_lt_ps u Hwf) as Hse.
  pose proof Hwf as W0. apply wf_b_iff in W0. destruct W0 as (S & AU & Q).
  apply wf_b_iff. split; [|split; [|exact Hqf]].
  - apply (scheme_ok_pre a u u'); try assumption. lia.
  - rewrite tail_has_authority. destruct (has_authority_b u) eqn:Ha.
    + destruct AU as [AU PS]. split.
      * destruct AU as (A1 & A2 & A3 & A4 & A5 & U & Hn & P).
        unfold auth_ok, userinfo_ok, port_ok. rewrite E1, E2, E3, E4, E5, E6, E7.
        repeat split; try assumption; try lia.
        -- destruct U as [(U1 & U2 & U3)|[(U1 & U2 & U3)|(U1 & U2)]].
           ++ left. repeat split; try assumption.
              destruct (N.eq_dec (username_end u) a) as [Ea|Hne].
              ** rewrite Ea. apply byte_eqb_false_of. apply tail_not; lia.
              ** rewrite (pre_byte_eqb a _ _ _ _ Hpre) by lia. exact U3.
           ++ right. left. rewrite !(pre_byte_eqb a _ _ _ _ Hpre) by lia. tauto.
           ++ right. right. rewrite !(pre_byte_eqb a _ _ _ _ Hpre) by lia. tauto.
        -- unfold port_ok in P. destruct (port u) as [p|]; [|exact P].
           destruct P as (P1 & P2 & P3 & P4).
           rewrite (pre_byte_eqb a _ _ _ _ Hpre) by lia.
           rewrite (pre_piece a _ _ _ _ Hpre) by lia. tauto.
      * unfold pathstart_ok. rewrite E7.
        destruct (N.eq_dec (path_start u) a) as [Ea|Hne].
        -- rewrite Ea. destruct Htail as [T|[T|T]]; tauto.
        -- right. rewrite !(pre_byte_eqb a _ _ _ _ Hpre) by lia.
           destruct PS as [PS|PS]; [lia | exact PS].
    + apply (noauth_ok_pre a u u'); try assumption.
      intros Em. rewrite (pre_starts_with a _ _ _ _ Hpre).
      * destruct AU as (_ & _ & _ & _ & _ & _ & [X|(_ & _ & _ & X)]); [lia | exact X].
      * change (nlen s_ss) with 2.
        destruct AU as (Eue & _). pose proof (Hmk Eue Em). lia.
Qed.

(* frame: everything in front of the path reads the same *)
Hypothesis Hwf' : wf_b u' = true.

Lemma tail_scheme : scheme u' = scheme u.
Proof.
  rewrite (scheme_eval u' Hwf'), (scheme_eval u Hwf). unfold piece. cbn [pidx].
  destruct Hmain as (E1 & _). rewrite E1, !N.sub_0_r, !nskipn_0.
  pose proof tail_ps_le_a. pose proof (wf_se_lt_ps u Hwf).
  rewrite (pre_firstn a _ _ _ Hpre) by lia. reflexivity.
Qed.

Lemma tail_username dbg : username dbg u' = username dbg u.
Proof.
  rewrite (username_eval dbg u' Hwf'), (username_eval dbg u Hwf). unfold piece. cbn [pidx].
  rewrite tail_has_authority. destruct Hmain as (E1 & E2 & _). rewrite E1, E2.
  pose proof tail_ps_le_a.
  destruct (has_authority_b u) eqn:Ha.
  - pose proof (wf_auth_facts u Hwf Ha) as F. pose proof (af_hs F); pose proof (af_he F); pose proof (af_ps F).
    rewrite (pre_piece a _ _ _ _ Hpre) by lia. reflexivity.
  - pose proof (wf_noauth_facts u Hwf Ha) as F. rewrite (nf_ue F), N.sub_diag. reflexivity.
Qed.

Lemma tail_has_password : has_password_b u' = has_password_b u.
Proof.
  pose proof tail_has_authority as HA. pose proof Hmain as (E1 & E2 & E3 & _). pose proof tail_ps_le_a.
  unfold has_password_b. rewrite HA, E2.
  destruct (has_authority_b u) eqn:Ha; [|reflexivity]. cbn [andb].
  pose proof (wf_auth_facts u Hwf Ha) as F.
  pose proof HA as Ha'.
  pose proof (wf_auth_facts u' Hwf' Ha') as F'.
  pose proof (af_hs F); pose proof (af_he F); pose proof (af_ps F).
  destruct (af_userinfo F) as [[U1 U2]|[(U1 & U2 & U3 & U4)|(U1 & U2 & U3 & U4)]].
  - rewrite U2, andb_false_r.
    destruct (af_userinfo F') as [[V1 V2]|[(V1 & _)|(V1 & _)]]; try (rewrite E2, E3 in V1; contradiction).
    rewrite E2 in V2. rewrite V2. apply andb_false_r.
  - rewrite (pre_byte_eqb a _ _ _ _ Hpre) by lia. rewrite U2.
    pose proof (byte_eqb_lt _ _ _ U2).
    replace (username_end u =? nlen (ser u)) with false by lia.
    replace (username_end u =? nlen (ser u')) with false by lia. reflexivity.
  - rewrite (pre_byte_eqb a _ _ _ _ Hpre) by lia. rewrite U2, !andb_false_r. reflexivity.
Qed.

Lemma tail_password dbg : password dbg u' = password dbg u.
Proof.
  rewrite (password_piece dbg u' Hwf'), (password_piece dbg u Hwf). rewrite tail_has_password.
  destruct (has_password_b u) eqn:Hp; [|reflexivity].
  unfold piece. cbn [pidx]. rewrite tail_has_password, Hp.
  pose proof Hmain as (E1 & E2 & E3 & _). rewrite E2, E3.
  assert (has_authority_b u = true) as Ha.
  { unfold has_password_b in Hp. destruct (has_authority_b u); [reflexivity | discriminate]. }
  pose proof (wf_auth_facts u Hwf Ha) as F. pose proof (af_hs F); pose proof (af_he F); pose proof (af_ps F).
  pose proof tail_ps_le_a.
  rewrite (pre_piece a _ _ _ _ Hpre) by lia. reflexivity.
Qed.

Lemma tail_host_str : host_str u' = host_str u.
Proof.
  rewrite (host_str_eval u' Hwf'), (host_str_eval u Hwf).
  pose proof Hmain as (E1 & E2 & E3 & E4 & E5 & _).
  unfold has_host. rewrite E5. destruct (hosti u) eqn:Eh; try reflexivity;
    unfold piece; cbn [pidx]; rewrite E3, E4;
    pose proof (pidx_monotone u Hwf AfterHost BeforePath ltac:(cbn; lia)) as M; cbn [pidx] in M;
    pose proof tail_ps_le_a;
    rewrite (pre_piece a _ _ _ _ Hpre) by lia; reflexivity.
Qed.

Lemma tail_port : port u' = port u.
Proof. destruct Hmain as (_ & _ & _ & _ & _ & E & _). exact E. Qed.

Lemma tail_path : path_end u' = path_end u -> path_end u <= a -> path u' = path u.
Proof.
  intros E Hpe. rewrite (path_eval u' Hwf'), (path_eval u Hwf). unfold piece.
  change (pidx u' AfterPath) with (path_end u'). change (pidx u AfterPath) with (path_end u).
  cbn [pidx]. destruct Hmain as (_ & _ & _ & _ & _ & _ & E7). rewrite E, E7.
  rewrite (pre_piece a _ _ _ _ Hpre) by lia. reflexivity.
Qed.

End TailChange.

(* the authority-side observations as one relation (reflexive and transitive, so steps compose) *)
Definition same_front (dbg : bool) (u u' : url) : Prop :=
  scheme u' = scheme u /\ username dbg u' = username dbg u /\ password dbg u' = password dbg u
  /\ host_str u' = host_str u /\ port u' = port u.

Lemma same_front_refl dbg u : same_front dbg u u.
Proof. repeat split. Qed.

Lemma same_front_trans dbg u v w : same_front dbg u v -> same_front dbg v w -> same_front dbg u w.
Proof.
  intros (A1 & A2 & A3 & A4 & A5) (B1 & B2 & B3 & B4 & B5).
  repeat split; etransitivity; eassumption.
Qed.

Lemma same_main_refl u : same_main u u.
Proof. repeat split. Qed.

Lemma same_main_trans u v w : same_main u v -> same_main v w -> same_main u w.
Proof.
  intros (A1 & A2 & A3 & A4 & A5 & A6 & A7) (B1 & B2 & B3 & B4 & B5 & B6 & B7).
  repeat split; etransitivity; eassumption.
Qed.

Lemma tail_front dbg u u' a : wf_b u = true -> wf_b u' = true -> same_main u u' ->
  agree_pre a (ser u) (ser u') -> path_start u <= a ->
  (username_end u = scheme_end u + 1 -> path_start u = scheme_end u + 3 -> path_start u + 2 <= a) ->
  a <= nlen (ser u) -> a <= nlen (ser u') ->
  (a = nlen (ser u') \/ byte_eqb (ser u') a 63 = true \/ byte_eqb (ser u') a 35 = true) ->
  same_front dbg u u'.
Proof.
  intros W W' M P Pe Mk L L' T. repeat split.
  - eapply tail_scheme; eassumption.
  - eapply tail_username; eassumption.
  - eapply tail_password; eassumption.
  - eapply tail_host_str; eassumption.
  - eapply tail_port; eassumption.
Qed.

Lemma marker_of_path_end u a : wf_b u = true -> path_end u <= a ->
  path_start u <= a /\ (username_end u = scheme_end u + 1 -> path_start u = scheme_end u + 3 -> path_start u + 2 <= a).
Proof.
  intros W H. pose proof (wf_ps_le_path_end u W). split; [lia|].
  intros Eue E. destruct (has_authority_b u) eqn:Ha.
  - pose proof (af_ue (wf_auth_facts u W Ha)). lia.
  - pose proof (wf_marker_in_path u W Ha E). lia.
Qed.

(* everything at once *)
Lemma tail_step dbg u u' a : wf_b u = true -> same_main u u' ->
  agree_pre a (ser u) (ser u') -> path_start u <= a ->
  (username_end u = scheme_end u + 1 -> path_start u = scheme_end u + 3 -> path_start u + 2 <= a) ->
  a <= nlen (ser u) -> a <= nlen (ser u') ->
  (a = nlen (ser u') \/ byte_eqb (ser u') a 63 = true \/ byte_eqb (ser u') a 35 = true) ->
  qf_ok u' ->
  wf_b u' = true /\ same_front dbg u u'
  /\ (path_end u' = path_end u -> path_end u <= a -> path u' = path u).
Proof.
  intros W M P Pe Mk L L' T Q.
  assert (wf_b u' = true) as W' by (eapply tail_wf; eassumption).
  split; [exact W'|]. split; [eapply tail_front; eassumption|].
  intros E1 E2. eapply tail_path; eassumption.
Qed.
