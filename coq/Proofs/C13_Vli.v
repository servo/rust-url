(* Proofs/C13_Vli.v - generalized variable-length integers for a fixed bias: the decoder loop reads the
   digit string that the encoder writes for q and arrives at i + q * w, at the end of that delta. *)
From RU Require Import Base.Prelude Spec.Rfc3492.

(* the decoder's continuation at the digit that ends a delta (the `break` branch of s_dec_loop) *)
Definition s_dec_break (dig : N -> option N) (rest : list N) (oldi i n bias : N) (out : list N) : option (list N) :=
  let len1 := N.of_nat (length out) + 1 in
  let bias := s_adapt (i - oldi) len1 (oldi =? 0) in
  let n := n + i / len1 in
  let i := i mod len1 in
  if is_usvb n then s_dec_loop dig rest false (i + 1) 1 s_base (i + 1) n bias (s_insert_at i n out) else None.

Lemma s_dec_loop_cons dig c rest mid oldi w k i n bias out :
  s_dec_loop dig (c :: rest) mid oldi w k i n bias out =
  match dig c with
  | None => None
  | Some digit =>
      if digit <? s_threshold k bias then s_dec_break dig rest oldi (i + digit * w) n bias out
      else s_dec_loop dig rest true oldi (w * (s_base - s_threshold k bias)) (k + s_base) (i + digit * w) n bias out
  end.
Proof. reflexivity. Qed.

Lemma s_enc_vli_S f q k bias :
  s_enc_vli (S f) q k bias =
  if q <? s_threshold k bias then [s_digit_char q]
  else s_digit_char (s_threshold k bias + (q - s_threshold k bias) mod (s_base - s_threshold k bias))
         :: s_enc_vli f ((q - s_threshold k bias) / (s_base - s_threshold k bias)) (k + s_base) bias.
Proof. reflexivity. Qed.

Lemma s_threshold_range k bias : 1 <= s_threshold k bias <= 26.
Proof.
  unfold s_threshold, s_tmin, s_tmax.
  destruct (k <=? bias) eqn:E1; [lia|]. destruct (bias + 26 <=? k) eqn:E2; lia.
Qed.

(* one digit of q in the mixed radix: q = (t + r) + (36 - t) * q', where t + r is the digit written
   and q' what is left for the following digits *)
Lemma vli_digit t q : 1 <= t <= 26 -> t <= q ->
  (q - t) mod (36 - t) < 36 - t /\ q = t + (q - t) mod (36 - t) + (36 - t) * ((q - t) / (36 - t)).
Proof.
  intros Ht Hq. split; [apply N.mod_lt; lia|].
  rewrite <- N.add_assoc, (N.add_comm (_ mod _)), <- N.div_mod by lia. lia.
Qed.

(* every radix is at least 10 > 2: one unit of fuel per bit of q is enough *)
Lemma vli_fuel_step f t q : 1 <= t <= 26 -> q < 2 ^ N.of_nat (S f) -> (q - t) / (36 - t) < 2 ^ N.of_nat f.
Proof.
  intros Ht Hq. rewrite Nat2N.inj_succ, N.pow_succ_r' in Hq.
  apply N.div_lt_upper_bound; [lia|].
  pose proof (N.mul_le_mono_r 2 (36 - t) (2 ^ N.of_nat f) ltac:(lia)). lia.
Qed.

Lemma s_digit_value_char d : d < 36 -> s_digit_value (s_digit_char d) = Some d.
Proof.
  intros H. unfold s_digit_value, s_digit_char. destruct (d <? 26) eqn:E.
  - replace ((48 <=? d + 97) && (d + 97 <=? 57)) with false by lia.
    replace ((65 <=? d + 97) && (d + 97 <=? 90)) with false by lia.
    replace ((97 <=? d + 97) && (d + 97 <=? 122)) with true by lia. f_equal. lia.
  - replace ((48 <=? d - 26 + 48) && (d - 26 + 48 <=? 57)) with true by lia. f_equal. lia.
Qed.

Lemma vli_decode dig (Hdig : forall d, d < 36 -> dig (s_digit_char d) = Some d) f :
  forall q k bias w i rest mid oldi n out, q < 2 ^ N.of_nat f ->
  s_dec_loop dig (s_enc_vli (S f) q k bias ++ rest) mid oldi w k i n bias out
  = s_dec_break dig rest oldi (i + q * w) n bias out.
Proof.
  induction f as [|f IH]; intros q k bias w i rest mid oldi n out Hq; rewrite s_enc_vli_S;
    pose proof (s_threshold_range k bias) as Ht; remember (s_threshold k bias) as t;
    (destruct (q <? t) eqn:E;
     [cbn [app]; rewrite s_dec_loop_cons, Hdig, <- Heqt, E by lia; reflexivity|]).
  - change (2 ^ N.of_nat 0) with 1 in Hq. lia.
  - change s_base with 36. destruct (vli_digit t q Ht ltac:(lia)) as [Hr Hsplit].
    pose proof (vli_fuel_step f t q Ht Hq) as Hq'.
    (* quotient and remainder as plain variables, for lia *)
    remember ((q - t) mod (36 - t)) as r eqn:Er. remember ((q - t) / (36 - t)) as q' eqn:Eq'. clear Er Eq'.
    cbn [app]. rewrite s_dec_loop_cons, Hdig, <- Heqt by lia.
    replace (t + r <? t) with false by lia. change s_base with 36.
    rewrite IH by exact Hq'. f_equal. rewrite Hsplit. ring.
Qed.

(* with the RFC's digit map and the fuel the encoder uses *)
Lemma vli_round_trip q k bias w i rest mid oldi n out :
  s_dec_loop s_digit_value (s_enc_vli (s_vli_fuel q) q k bias ++ rest) mid oldi w k i n bias out
  = s_dec_break s_digit_value rest oldi (i + q * w) n bias out.
Proof.
  unfold s_vli_fuel. apply vli_decode; [exact s_digit_value_char|]. rewrite N2Nat.id. apply N.size_gt.
Qed.

(* the delimiter is not a digit *)
Lemma s_enc_vli_nodelim fuel : forall q k bias, Forall (fun c => c <> s_delimiter) (s_enc_vli fuel q k bias).
Proof.
  assert (Hc : forall d, s_digit_char d <> s_delimiter).
  { intros d. unfold s_digit_char, s_delimiter. destruct (d <? 26) eqn:E; lia. }
  induction fuel as [|f IH]; intros q k bias; [constructor|]. rewrite s_enc_vli_S.
  destruct (q <? s_threshold k bias); repeat constructor; [apply Hc|apply Hc|apply IH].
Qed.
