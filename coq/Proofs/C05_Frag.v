(* Proofs/C05_Frag.v - a component-level clause proved for the stored slice: the fragment of every
   parse result (any base: the base's fragment is never kept) and of every set_fragment result is
   inside 0x21..0x7E and free of space, double quote, '<', '>', backtick. *)
From RU Require Import Base.Prelude Base.Utf8 Model.AsciiSet Gen.Tables Model.PercentEncoding
  Model.HostT Model.UrlRecord Model.Parser Model.Setters Proofs.ListN Proofs.C05_Enc Proofs.C05_Parser
  Proofs.C06_FragQuery Proofs.C05_Setters Proofs.C05_Tail.

Lemma fragment_piece_clean xs : comp_clean D_FRAGMENT (pe_display T_FRAGMENT xs).
Proof. apply pe_display_clean; [apply T_FRAGMENT_facts | apply T_FRAGMENT_facts | reflexivity]. Qed.

Lemma parse_fragment_loop_clean l ser pr :
  exists t, parse_fragment_loop ser pr l = ser ++ t /\ comp_clean D_FRAGMENT t.
Proof.
  rewrite parse_fragment_loop_tnl.
  exact (tnl_loop_adds _ T_FRAGMENT (comp_clean_nil _) (comp_clean_app _) fragment_piece_clean l ser pr).
Qed.

(* the serialization is X ++ "#" ++ t with fragment_start = |X| and t clean *)
Definition frag_ok (s : list N) (fs : option N) : Prop :=
  match fs with
  | Some f => exists X t, s = X ++ [35] ++ t /\ f = nlen X /\ comp_clean D_FRAGMENT t
  | None => True
  end.

Definition frag_oku (u : url) : Prop := frag_ok (ser u) (fragment_start u).

Lemma to_u32_eq n m : to_u32 n = POk m -> m = n.
Proof. unfold to_u32. destruct (n <=? U32_MAX_P); intros H; [inversion H; reflexivity | discriminate]. Qed.

Lemma frag_ok_new X l f : to_u32 (nlen X) = POk f -> frag_ok (parse_fragment (X ++ [35]) l) (Some f).
Proof.
  intros Hf. apply to_u32_eq in Hf. subst f. unfold parse_fragment.
  destruct (parse_fragment_loop_clean l (X ++ [35]) []) as [t [Ht Hc]]. rewrite Ht, <- app_assoc.
  exists X, t. repeat split; [apply Hc | apply Hc].
Qed.

Lemma pqf_frag ovr ctx st se sr l s qs fs :
  parse_query_and_fragment ovr ctx st se sr l = POk (s, qs, fs) -> frag_ok s fs.
Proof.
  unfold parse_query_and_fragment. intros H.
  destruct (inp_next l) as [[c r]|]; [|inversion H; subst; exact I].
  destruct (c =? 35).
  { pb H f0 Hf0. inversion H; subst. apply frag_ok_new. exact Hf0. }
  destruct (c =? 63); [|discriminate]. pb H q0 Hq0.
  destruct (parse_query ovr ctx st se (sr ++ [63]) r) as [ser1 rem].
  destruct rem as [r2|]; [|inversion H; subst; exact I].
  pb H f0 Hf0. inversion H; subst. apply frag_ok_new. exact Hf0.
Qed.

Lemma fragment_only_frag base l u : fragment_only base l = POk u -> frag_oku u.
Proof.
  unfold fragment_only. cbv zeta. intros H. pb H f0 Hf0. inversion H; subst. unfold frag_oku. cbn [ser fragment_start].
  apply frag_ok_new. exact Hf0.
Qed.

Theorem parse_url_frag dbg hp hpo hd ovr base input u :
  parse_url dbg hp hpo hd ovr base input = POk u -> frag_oku u.
Proof.
  intros H.
  apply (tail_origin_elim (fun s _ fs => frag_ok s fs) base u); [.. | exact (parse_url_tail dbg hp hpo hd ovr base input u H)].
  - intros. eapply pqf_frag. eassumption.
  - intros b l u' _ H'. exact (fragment_only_frag b l u' H').
  - intros. exact I.
Qed.

(* the accessor returns exactly t *)
Lemma frag_oku_fragment dbg u f : frag_oku u -> fragment dbg u = Some (Some f) -> comp_clean D_FRAGMENT f.
Proof.
  unfold frag_oku, frag_ok, fragment. destruct (fragment_start u) as [fs|]; [|discriminate].
  intros (X & t & Hs & Hf & Hc) H.
  ob H x Hx. unfold u_slice_from, slice_from_o in H. rewrite Hs in H.
  destruct (fs + 1 <=? nlen (X ++ [35] ++ t)); cbn [bindo] in H; [|discriminate].
  inversion H; subst f fs. clear H.
  assert (nskipn (nlen X + 1) (X ++ [35] ++ t) = t) as E.
  { unfold nskipn, nlen. replace (N.to_nat (N.of_nat (length X) + 1)) with (length X + 1)%nat by lia.
    rewrite skipn_app. rewrite skipn_all2 by lia. replace (length X + 1 - length X)%nat with 1%nat by lia. reflexivity. }
  cbn [app] in E. rewrite E. exact Hc.
Qed.

Lemma set_fragment_frag dbg u input u' : set_fragment dbg u (Some input) = Some u' -> frag_oku u'.
Proof.
  unfold set_fragment. intros H. ob H s0 Hs0. inversion H; subst. unfold frag_oku.
  cbn [ser fragment_start set_ser set_fragment_start]. unfold parse_fragment.
  destruct (parse_fragment_loop_clean input (s0 ++ [35]) []) as [t [Ht Hc]]. rewrite Ht, <- app_assoc.
  exists s0, t. repeat split; apply Hc.
Qed.
