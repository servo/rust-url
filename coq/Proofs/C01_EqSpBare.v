(* Proofs/C01_EqSpBare.v - the bare same-scheme references against a special non-file base:
   "sch:" followed by nothing, by "?query[#fragment]" or by "#fragment", sch the scheme of the base.
   The Standard: scheme state -> special relative or authority -> relative state at EOF / '?' / '#': the base
   without fragment, resp. with the new query / fragment.  parser.rs: parse_relative on the text after "sch:"
   (the same three arms the scheme-less references "", "?q", "#f" take). *)
From RU Require Import Base.Prelude Base.Utf8 Gen.Tables Model.PercentEncoding Model.HostT Model.UrlRecord
  Model.Parser Model.Setters Spec.Whatwg Proofs.ListN Proofs.C02_Enc Proofs.C02_Parts Proofs.C06_FragQuery
  Proofs.C01_Tables Proofs.C08_Input Proofs.C08_Simple Proofs.C01_EqRun Proofs.C01_EqEnc Proofs.C01_EqOpaque
  Proofs.C01_EqRef Proofs.C01_EqEmpty Proofs.C01_EqOverflow Proofs.C01_EqClasses Proofs.C01_EqAuth
  Proofs.C01_EqClasses2 Proofs.C01_EqRelArms Proofs.C01_EqRelBase Proofs.C01_EqSpSpec Proofs.C01_EqSpBase.

(* the relative state at EOF, '?' and '#', at any position *)
Section SpecBare.
Variable shp : bool -> list N -> option spec_host.
Variable inp : list N.
Variable sb : spec_url.
Hypothesis Hsp : is_special_scheme (su_scheme sb) = true.

Notation RunsB := (Runs shp inp (Some sb)).
Notation u0 := (set_scheme empty_url (su_scheme sb)).

Lemma runs_relative_eof pre : inp = pre ++ [] ->
  RunsB (at_pos StRelative pre [] false false false u0) (BDone (set_fragment sb None)).
Proof.
  intros Hin.
  eapply (R_end shp inp (Some sb)) with (m' := at_pos StRelative pre [] false false false (set_fragment sb None)).
  - rewrite (step_unfold shp inp (Some sb) _ pre []) by exact Hin. cbn zeta. cbn [hd_error tl].
    unfold st_relative. cbn [cis andb is_eof negb m_url at_pos]. rewrite andb_false_r.
    unfold set_url, at_pos. cbn [m_state m_ptr m_buf m_at m_br m_pw]. destruct sb; reflexivity.
  - cbn [m_ptr at_pos]. rewrite (len_split shp _ _ _ Hin). cbn [length]. lia.
Qed.

Lemma runs_relative_query pre q : inp = pre ++ 63 :: q ->
  RunsB (at_pos StRelative pre [] false false false u0) (BDone (ref_result sb q)).
Proof.
  intros Hin.
  eapply (runs_step_next shp inp (Some sb) StRelative pre 63 q) with (st' := StQuery) (buf' := []); [exact Hin | |].
  - rewrite (step_unfold shp inp (Some sb) _ pre (63 :: q)) by exact Hin. cbn zeta. cbn [hd_error tl].
    unfold st_relative. cbn [cis andb].
    replace (63 =? 47) with false by reflexivity. replace (63 =? 92) with false by reflexivity.
    replace (63 =? 63) with true by reflexivity. rewrite andb_false_r. reflexivity.
  - match goal with |- Runs _ _ _ (at_pos _ _ _ _ _ _ ?u1) _ =>
      pose proof (runs_query shp inp (Some sb) q (pre ++ [63]) [] false false false u1 [] (snoc_split _ _ _ _ Hin) eq_refl) as HR
    end.
    match type of HR with Runs _ _ _ _ (BDone ?x) => replace (ref_result sb q) with x; [exact HR|] end.
    unfold ref_result, query_final, qset_of, is_special. cbn [su_scheme set_query set_path set_host set_scheme
      set_port set_password set_username app m_url at_pos].
    destruct (after_hash q); destruct sb; reflexivity.
Qed.

Lemma runs_relative_fragment pre f : inp = pre ++ 35 :: f ->
  RunsB (at_pos StRelative pre [] false false false u0) (BDone (set_fragment sb (Some (upe in_fragment_set f)))).
Proof.
  intros Hin.
  eapply (runs_step_next shp inp (Some sb) StRelative pre 35 f) with (st' := StFragment) (buf' := []); [exact Hin | |].
  - rewrite (step_unfold shp inp (Some sb) _ pre (35 :: f)) by exact Hin. cbn zeta. cbn [hd_error tl].
    unfold st_relative. cbn [cis andb].
    replace (35 =? 47) with false by reflexivity. replace (35 =? 92) with false by reflexivity.
    replace (35 =? 63) with false by reflexivity. replace (35 =? 35) with true by reflexivity.
    rewrite andb_false_r. reflexivity.
  - match goal with |- Runs _ _ _ (at_pos _ _ _ _ _ _ ?u1) _ =>
      pose proof (runs_fragment shp inp (Some sb) f (pre ++ [35]) [] false false false u1 [] (snoc_split _ _ _ _ Hin) eq_refl) as HR
    end.
    match type of HR with Runs _ _ _ _ (BDone ?x) =>
      replace (set_fragment sb (Some (upe in_fragment_set f))) with x; [exact HR|]
    end.
    cbn [m_url at_pos]. destruct sb; reflexivity.
Qed.

End SpecBare.

Definition bare_result (sb : spec_url) (R : list N) : spec_url :=
  match R with
  | [] => set_fragment sb None
  | c :: r => if c =? 63 then ref_result sb r else set_fragment sb (Some (upe in_fragment_set r))
  end.

Definition in_class_same_bare (sb : spec_url) (input : list N) : bool :=
  sp_base_ok sb
  && match spec_scheme (spec_clean input) with
     | Some (sch, R) => list_eqb sch (su_scheme sb) && match R with [] => true | c :: _ => is_qh c end
     | None => false
     end.

Lemma bare_result_base_ok sb R : spec_base_ok (bare_result sb R) = spec_base_ok sb.
Proof.
  unfold bare_result. destruct R as [|c r]; [apply base_ok_set_fragment|].
  destruct (c =? 63); [|apply base_ok_set_fragment].
  unfold ref_result. rewrite base_ok_set_fragment. apply base_ok_set_query.
Qed.

Section BareClass.
Variable dbg : bool.
Variable hp hpo : list N -> result host.
Variable hd : host -> list N.
Variable shp : bool -> list N -> option spec_host.
Variable shs : spec_host -> list N.

Theorem spec_same_bare input sb R : sp_base_ok sb = true ->
  spec_scheme (spec_clean input) = Some (su_scheme sb, R) ->
  match R with [] => True | c :: _ => is_qh c = true end ->
  spec_basic_url_parse shp input (Some sb) = BDone (bare_result sb R).
Proof.
  intros Hb Es HR. destruct (sp_base_ok_facts sb Hb) as (Hop & Hsp & Hnf & h & Eh).
  apply spec_parse_of_runs.
  destruct (runs_scheme shp (spec_clean input) (Some sb) (su_scheme sb) R (BDone (bare_result sb R)) Es) as (pre & Hin & K).
  apply K.
  apply (runs_scheme_colon_same shp _ sb Hsp Hnf pre R _ Hin).
  assert (spec_clean input = (pre ++ [58]) ++ R) as Hin2 by (rewrite Hin, <- app_assoc; reflexivity).
  apply (runs_sroa_relative shp _ sb (pre ++ [58]) R _ Hin2).
  { destruct R as [|c r]; [reflexivity|]. cbn [hd_error cis]. unfold is_qh in HR.
    assert ((c =? 47) = false) as -> by lia. reflexivity. }
  unfold bare_result. destruct R as [|c r].
  - exact (runs_relative_eof shp _ sb Hsp (pre ++ [58]) Hin2).
  - unfold is_qh in HR. destruct (c =? 63) eqn:E63.
    + apply N.eqb_eq in E63. subst c. exact (runs_relative_query shp _ sb Hsp (pre ++ [58]) r Hin2).
    + cbn [orb] in HR. apply N.eqb_eq in HR. subst c. exact (runs_relative_fragment shp _ sb Hsp (pre ++ [58]) r Hin2).
Qed.

Lemma href_ge_scheme su : nlen (su_scheme su) <= nlen (get_href shs su).
Proof. unfold get_href, serialize_url. rewrite nlen_app. lia. Qed.

Lemma bind_u32_strict n (m : pres url) su : agree_rel_strict dbg shs m (BDone su) -> n <= nlen (get_href shs su) ->
  agree_rel_strict dbg shs (' _ <~ to_u32 n ;; m) (BDone su).
Proof.
  intros A Hn. unfold to_u32. destruct (n <=? U32_MAX_P) eqn:E; cbn [pbind]; [exact A|].
  cbn [agree_rel_strict]. left. split; [reflexivity | lia].
Qed.

(* the three arms of parse_relative *)
Lemma model_bare_empty b sb l : related dbg shs b sb -> ntnl l = [] ->
  agree_rel_strict dbg shs (parse_relative dbg hp hpo hd None CUrlParser STSpecialNotFile b l) (BDone (set_fragment sb None)).
Proof.
  intros R He. unfold parse_relative, inp_split_first. rewrite (inp_next_none l He).
  cbn [agree_rel_strict]. right. exists (without_fragment b). split; [reflexivity|].
  exact (related_without_fragment dbg hp hpo shp shs b sb R).
Qed.

Lemma model_bare_fragment b sb l f : related dbg shs b sb -> usv_list l -> ntnl l = 35 :: f ->
  agree_rel_strict dbg shs (parse_relative dbg hp hpo hd None CUrlParser STSpecialNotFile b l)
                   (BDone (set_fragment sb (Some (upe in_fragment_set f)))).
Proof.
  intros R Hl He. destruct (inp_next_some l 35 f He) as (r & En & Er & _).
  unfold parse_relative, inp_split_first. rewrite En. cbn [N.eqb Pos.eqb].
  unfold fragment_only. rewrite En.
  assert (get_href shs (set_fragment sb (Some (upe in_fragment_set f)))
          = serialize_url shs sb true ++ 35 :: upe in_fragment_set f) as EH.
  { unfold get_href, serialize_url.
    cbn [su_scheme su_username su_password su_host su_port su_path su_query su_fragment set_fragment
         includes_credentials serialize_path].
    rewrite !app_nil_r. rewrite <- !app_assoc. reflexivity. }
  destruct (to_u32_cases (nlen (b_before_fragment b))) as [(m & Em & Emn)|[Em B]]; rewrite Em; cbn [pbind].
  - subst m. rewrite parse_fragment_text. rewrite tnl_text_spec by (eapply inp_next_usv; eassumption).
    change (filter not_tnl r) with (ntnl r). rewrite Er.
    cbn [agree_rel_strict]. right. exists (with_fragment b (encode T_FRAGMENT (utf8_encode f))). split.
    + unfold with_fragment, url_with. rewrite <- app_assoc. reflexivity.
    + unfold upe. rewrite <- (enc_bridge T_FRAGMENT in_fragment_set f rel_FRAGMENT).
      apply related_with_fragment. exact R.
  - cbn [agree_rel_strict]. left. split; [reflexivity|]. rewrite EH. rewrite (rel_bf _ _ _ _ R) in B.
    pose proof (nlen_app_le (serialize_url shs sb true) (35 :: upe in_fragment_set f)). lia.
Qed.

Lemma model_bare_query b sb l q : related dbg shs b sb -> has_opaque_path sb = false ->
  is_special_scheme (su_scheme sb) = true -> list_eqb (su_scheme sb) str_file = false ->
  usv_list l -> ntnl l = 63 :: q ->
  agree_rel_strict dbg shs (parse_relative dbg hp hpo hd None CUrlParser STSpecialNotFile b l) (BDone (ref_result sb q)).
Proof.
  intros R Hop Hsp Hnf Hl He. pose proof (rel_wf _ _ _ _ R) as W.
  destruct (inp_next_some l 63 q He) as (r & En & Er & Et).
  pose proof (special_type_related dbg shs b sb R Hsp Hnf) as Hst.
  assert (b_st b = STSpecialNotFile) as Hbst by exact Hst.
  unfold parse_relative, inp_split_first. rewrite En. cbn [N.eqb Pos.eqb].
  rewrite <- Hbst.
  pose proof (ref_result_href dbg shs b sb l q R He) as EH.
  destruct (parse_query_and_fragment None CUrlParser (b_st b) (scheme_end b) (b_before_query b) l)
    as [[[s qs] fs]|e|] eqn:Eq; cbn [pbind].
  - destruct (query_arm hp hpo b l q s qs fs W Hl He Eq) as [-> K].
    cbn [agree_rel_strict]. right. eexists. split; [reflexivity|].
    assert (ref_query (b_st b) q = upe (qset_of sb) (before_hash q)) as EQ.
    { unfold ref_query, b_st, qset_of, is_special, query_set. rewrite (rel_sch _ _ _ _ R).
      rewrite special_schemes_are_the_standards, before_hash_same.
      destruct (is_special_scheme (su_scheme sb)); apply enc_bridge; [exact rel_SPECIAL_QUERY | exact rel_QUERY]. }
    assert (ref_fragment q = option_map (upe in_fragment_set) (after_hash q)) as EF.
    { unfold ref_fragment. rewrite after_hash_same. destruct (after_hash q) as [x|]; [|reflexivity].
      cbn [option_map]. f_equal. apply enc_bridge. exact rel_FRAGMENT. }
    unfold ref_result. rewrite <- EQ, <- EF. apply related_with_query; [exact R | exact K].
  - assert (match ntnl l with [] => True | c :: _ => is_qh c = true end) as Hhead by (rewrite He; reflexivity).
    destruct (pqf_oob None True (b_st b) (scheme_end b) (b_before_query b) l Hl eq_refl Hhead (fun _ => I)) as [[E' _]|E'];
      rewrite Eq in E'; [|discriminate E']. injection E' as ->.
    cbn [agree_rel_strict]. left. split; [reflexivity|]. rewrite EH.
    apply (pqf_overflow None (b_st b) (scheme_end b)); [exact Hl | reflexivity | exact Eq].
  - exfalso.
    assert (match ntnl l with [] => True | c :: _ => is_qh c = true end) as Hhead by (rewrite He; reflexivity).
    destruct (pqf_oob None True (b_st b) (scheme_end b) (b_before_query b) l Hl eq_refl Hhead (fun _ => I)) as [[E' _]|E'];
      rewrite Eq in E'; discriminate E'.
Qed.

Lemma bare_result_scheme sb R : su_scheme (bare_result sb R) = su_scheme sb.
Proof.
  unfold bare_result. destruct R as [|c r]; [destruct sb; reflexivity|].
  destruct (c =? 63); [|destruct sb; reflexivity].
  unfold ref_result. destruct (option_map (upe in_fragment_set) (after_hash r)); destruct sb; reflexivity.
Qed.

Lemma same_bare_spec input sb : in_class_same_bare sb input = true ->
  exists R, spec_basic_url_parse shp input (Some sb) = BDone (bare_result sb R).
Proof.
  intros Hc. unfold in_class_same_bare in Hc.
  apply andb_true_iff in Hc. destruct Hc as [Hb Hok].
  destruct (spec_scheme (spec_clean input)) as [[sch R0]|] eqn:Es; [|discriminate Hok].
  apply andb_true_iff in Hok. destruct Hok as [Esch HR]. apply list_eqb_spec in Esch. subst sch.
  assert (match R0 with [] => True | c :: _ => is_qh c = true end) as HR' by (destruct R0; [exact I | exact HR]).
  exists R0. exact (spec_same_bare input sb R0 Hb Es HR').
Qed.

Theorem class_same_bare input b sb : usv_list input -> related dbg shs b sb ->
  in_class_same_bare sb input = true ->
  exists R, spec_basic_url_parse shp input (Some sb) = BDone (bare_result sb R)
    /\ agree_rel_strict dbg shs (parse_url dbg hp hpo hd None (Some b) input) (BDone (bare_result sb R)).
Proof.
  intros Hu Rl Hc. unfold in_class_same_bare in Hc.
  apply andb_true_iff in Hc. destruct Hc as [Hb Hok].
  destruct (sp_base_ok_facts sb Hb) as (Hop & Hsp & Hnf & h & Eh).
  destruct (spec_scheme (spec_clean input)) as [[sch R0]|] eqn:Es; [|discriminate Hok].
  apply andb_true_iff in Hok. destruct Hok as [Esch HR]. apply list_eqb_spec in Esch. subst sch.
  assert (match R0 with [] => True | c :: _ => is_qh c = true end) as HR' by (destruct R0; [exact I | exact HR]).
  exists R0. split; [exact (spec_same_bare input sb R0 Hb Es HR')|].
  destruct (spec_scheme_input input _ _ Hu Es) as (rem & Hps & Hrem & Hur).
  rewrite (parse_url_same_scheme dbg hp hpo hd shs b sb input rem Rl Hop Hsp Hnf Hps).
  2:{ rewrite Hrem. destruct R0 as [|c r]; [cbn [count_leading]; lia|]. cbn [count_leading].
      assert (is_sl c = false) as -> by (unfold is_qh in HR'; unfold is_sl; lia). lia. }
  apply bind_u32_strict; [|rewrite <- (bare_result_scheme sb R0); apply href_ge_scheme].
  unfold bare_result. destruct R0 as [|c r].
  - exact (model_bare_empty b sb rem Rl Hrem).
  - unfold is_qh in HR'. destruct (c =? 63) eqn:E63.
    + apply N.eqb_eq in E63. subst c. exact (model_bare_query b sb rem r Rl Hop Hsp Hnf Hur Hrem).
    + cbn [orb] in HR'. apply N.eqb_eq in HR'. subst c. exact (model_bare_fragment b sb rem r Rl Hur Hrem).
Qed.

End BareClass.
