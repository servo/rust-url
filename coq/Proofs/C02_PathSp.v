(* Proofs/C02_PathSp.v - the path state for special non-file schemes (http, https, ws, wss, ftp): the
   lemmas of C02_Path.v (L3: canonical text is pushed unchanged) and C02_PathL1.v (L1: the loop
   invariant) at the class where '\\' is a second separator.  A canonical segment additionally contains no '\\'. *)
From RU Require Import Base.Prelude Base.Utf8 Gen.Tables Model.PercentEncoding Model.UrlRecord Model.Parser
  Proofs.C02_Enc Proofs.C02_Parts Proofs.C02_Opaque Proofs.C02_Path Proofs.C02_PathL1.

Definition good_seg_sp (s : list N) : bool := good_seg s && no_byte 92 s.
Definition seg_char_sp (c : N) : bool := seg_char c && negb (c =? 92).

Lemma good_seg_sp_good s : good_seg_sp s = true -> good_seg s = true.
Proof. unfold good_seg_sp. intros H. apply andb_true_iff in H. tauto. Qed.
Lemma good_seg_sp_92 s : good_seg_sp s = true -> no_byte 92 s = true.
Proof. unfold good_seg_sp. intros H. apply andb_true_iff in H. tauto. Qed.
Lemma good_seg_sp_parts s : good_seg_sp s = true ->
  clean T_PATH s = true /\ no_slash s = true /\ is_single_dot s = false /\ is_double_dot s = false.
Proof. intros H. apply good_seg_parts. apply good_seg_sp_good. exact H. Qed.
Lemma good_seg_sp_chars s : good_seg_sp s = true -> forallb seg_char_sp s = true.
Proof.
  intros H. pose proof (good_seg_chars s (good_seg_sp_good s H)) as H1. pose proof (good_seg_sp_92 s H) as H2.
  unfold no_byte in H2. rewrite forallb_forall in *. intros c Hc. unfold seg_char_sp. rewrite (H1 c Hc), (H2 c Hc). reflexivity.
Qed.
Lemma good_segs_sp_good segs : forallb good_seg_sp segs = true -> forallb good_seg segs = true.
Proof. apply forallb_impl. exact good_seg_sp_good. Qed.

Lemma plain_char_sp st c : st_is_special st = true -> plain_char st c = seg_char_sp c.
Proof.
  intros H. unfold plain_char, seg_char_sp, seg_char. rewrite (sep_special st c H).
  destruct (not_tnl c); destruct (c =? 47); destruct (c =? 92); destruct (is_qh c); reflexivity.
Qed.

Lemma good_seg_sp_plain st s : st_is_special st = true -> good_seg_sp s = true -> forallb (plain_char st) s = true.
Proof.
  intros Hst H. apply (forallb_impl seg_char_sp); [|apply good_seg_sp_chars; exact H].
  intros c Hc. rewrite (plain_char_sp st c Hst). exact Hc.
Qed.

Lemma good_seg_sp_of_parts st s : st_is_special st = true -> clean T_PATH s = true -> nosep st s = true ->
  is_single_dot s = false -> is_double_dot s = false -> good_seg_sp s = true.
Proof.
  intros Hst Hc Hn Hsd Hdd. rewrite (nosep_special st s Hst) in Hn. apply andb_true_iff in Hn. destruct Hn as [Hn Hb].
  unfold good_seg_sp, good_seg. rewrite Hc, Hn, Hsd, Hdd, Hb. reflexivity.
Qed.

Lemma good_seg_sp_no_slash s : good_seg_sp s = true -> no_slash s = true.
Proof. intros H. apply (good_seg_sp_parts s H). Qed.

Section PathLoopSp.
Variable dbg : bool.
Variable ps : N.

Notation loop := (parse_path_loop dbg CUrlParser STSpecialNotFile ps).

(* the steps for a special non-file scheme *)
Lemma loop_cons_slash_sp r ser ss pend hh :
  loop (47 :: r) ser ss pend hh
  = (' (s2, hh') <~ finish_segment dbg STSpecialNotFile ps (push_pending CUrlParser STSpecialNotFile ser pend ++ [47]) ss true hh ;;
     loop r s2 (nlen s2) [] hh').
Proof. reflexivity. Qed.

Lemma loop_cons_bslash_sp r ser ss pend hh :
  loop (92 :: r) ser ss pend hh
  = (' (s2, hh') <~ finish_segment dbg STSpecialNotFile ps (push_pending CUrlParser STSpecialNotFile ser pend ++ [47]) ss true hh ;;
     loop r s2 (nlen s2) [] hh').
Proof. reflexivity. Qed.

Lemma finish_plain_sp ser ss (ews : bool) hh seg :
  slice_o ser ss (if ews then nlen ser - 1 else nlen ser) = Some seg ->
  is_double_dot seg = false -> is_single_dot seg = false ->
  finish_segment dbg STSpecialNotFile ps ser ss ews hh = POk (ser, hh).
Proof. intros Hs Hd Hsd. apply (finish_keep dbg STSpecialNotFile ps ser ss ews hh seg Hs Hd Hsd). reflexivity. Qed.

(* L3 for the path state: canonical text is pushed unchanged *)
Theorem path_loop_canon_sp segs : forall last rest ser hh,
  forallb good_seg_sp segs = true -> good_seg_sp last = true ->
  match rest with [] => True | c :: _ => is_qh c = true /\ is_tnl c = false end ->
  loop (segs_text segs ++ last ++ rest) ser (nlen ser) [] hh = POk (ser ++ segs_text segs ++ last, hh, rest).
Proof.
  intros last rest ser hh Hsegs Hlast Hrest.
  apply (loop_canon dbg STSpecialNotFile ps good_seg_sp); try assumption; try reflexivity.
  - intros s H. apply (good_seg_sp_parts s H).
  - intros s H. apply good_seg_sp_plain; [reflexivity | exact H].
  - intros s ss H. destruct (good_seg_sp_parts s H) as (_ & _ & Hsd & Hdd). repeat split; assumption.
Qed.

End PathLoopSp.

Section LoopInvSp.
Variable pre : list N.
Variable dbg : bool.
Notation ps := (nlen pre).
Notation loop := (parse_path_loop dbg CUrlParser STSpecialNotFile ps).

Definition pend_ok_sp (pend : list N) : Prop := usv_list pend /\ no_byte 47 pend = true /\ no_byte 92 pend = true.

Lemma hex_not_b d b : d < 16 -> 70 < b -> negb (hex_upper d =? b) = true.
Proof. intros H Hb. pose proof (hex_upper_ge d H). lia. Qed.

Lemma pend_ok_sp_sep st pend : st_is_special st = true -> pend_ok_sp pend -> pend_sep_ok st pend.
Proof.
  intros Hst (Hu & Hp & Hq). split; [exact Hu|]. rewrite (nosep_special st pend Hst).
  rewrite no_slash_no_byte, Hp, Hq. reflexivity.
Qed.

Lemma pend_nil_ok : pend_ok_sp [].
Proof. split; [constructor | split; reflexivity]. Qed.

(* what finish_segment does to  Bs pre segs ++ cur [++ "/"] *)
Lemma finish_inv_sp segs cur (ews : bool) hh :
  forallb good_seg_sp segs = true -> clean T_PATH cur = true -> no_slash cur = true -> no_byte 92 cur = true ->
  exists segs' last',
    finish_segment dbg STSpecialNotFile ps (Bs pre segs ++ cur ++ (if ews then [47] else [])) (nlen (Bs pre segs)) ews hh
    = POk (Bs pre segs' ++ last', hh)
    /\ forallb good_seg_sp segs' = true /\ good_seg_sp last' = true /\ (ews = true -> last' = []).
Proof.
  intros Hsegs Hc Hns H92.
  assert (nosep STSpecialNotFile cur = true) as Hn by (rewrite nosep_special by reflexivity; rewrite Hns, H92; reflexivity).
  destruct (finish_inv_gen pre dbg STSpecialNotFile good_seg_sp eq_refl good_seg_sp_no_slash
              (fun s => good_seg_sp_of_parts STSpecialNotFile s eq_refl) (fun E => False_ind _ (diff_false_true E))
              segs cur ews hh Hsegs Hc Hn)
    as (segs' & last' & hh' & Hf & G1 & G2 & G3 & [-> | [E _]]); [|discriminate E].
  exists segs', last'. repeat split; assumption.
Qed.

Theorem loop_inv_sp l : forall segs cur pend hh s' hh' rem, usv_list l -> pend_ok_sp pend ->
  forallb good_seg_sp segs = true -> clean T_PATH cur = true -> no_slash cur = true -> no_byte 92 cur = true ->
  loop l (Bs pre segs ++ cur) (nlen (Bs pre segs)) pend hh = POk (s', hh', rem) ->
  exists segs' last', s' = Bs pre segs' ++ last' /\ forallb good_seg_sp segs' = true /\ good_seg_sp last' = true
                      /\ hh' = hh /\ rem = cbb_rest l.
Proof.
  intros segs cur pend hh s' hh' rem Hu Hp Hsegs Hc Hns H92.
  assert (nosep STSpecialNotFile cur = true) as Hn by (rewrite nosep_special by reflexivity; rewrite Hns, H92; reflexivity).
  exact (loop_inv_gen pre dbg STSpecialNotFile good_seg_sp eq_refl good_seg_sp_no_slash
           (fun s => good_seg_sp_of_parts STSpecialNotFile s eq_refl) (fun E => False_ind _ (diff_false_true E)) eq_refl
           l segs cur pend hh s' hh' rem Hu (pend_ok_sp_sep STSpecialNotFile pend eq_refl Hp) Hsegs Hc Hn).
Qed.

Corollary parse_path_sp l hh s hh' rem : usv_list l ->
  parse_path dbg CUrlParser STSpecialNotFile hh ps (pre ++ [47]) l = POk (s, hh', rem) ->
  exists segs last, s = pre ++ path_text segs last /\ forallb good_seg_sp segs = true /\ good_seg_sp last = true
                    /\ hh' = hh /\ rem = cbb_rest l.
Proof.
  exact (parse_path_inv pre dbg STSpecialNotFile good_seg_sp eq_refl good_seg_sp_no_slash
           (fun s => good_seg_sp_of_parts STSpecialNotFile s eq_refl) (fun E => False_ind _ (diff_false_true E)) eq_refl
           l hh s hh' rem).
Qed.

End LoopInvSp.
