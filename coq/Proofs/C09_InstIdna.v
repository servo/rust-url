(* Proofs/C09_InstIdna.v - what IdnaOK (the premise of the domain clauses of C09 and of every instantiated
   URL-level theorem) amounts to for the IDNA MODEL (Model/Uts46.v, the function host.rs calls:
   idna::domain_to_ascii_cow(bytes, AsciiDenyList::URL)): its three clauses are
     (1) C10_ascii_statement at the URL deny list (outputs are ASCII, lower case, outside the deny list),
     (2) idempotence of ToASCII at (URL deny list, Hyphens::Allow, DnsLength::Ignore) on every byte input
         (idem_url),
     (3) dotted-decimal text is mapped to itself (v4_fixed; holds, v4_fixed_all in Proofs/C09_Uts46.v).
   IdnaOK_of_model is that implication.  (2) is FALSE of the model: an answer in Known_C10_long is refused
   (class_answer_not_IdnaOK, model_long_not_IdnaOK in Proofs/C09_LongWit.v), so IdnaOK (idna_of A cfg) is not obtained
   this way; idna_of_clauses is stated for a class K of answers so that the same derivation gives IdnaOK2 outside the
   class (IdnaOK2_of_model, Proofs/C09_LongWit.v; premises established in Proofs/C09_Uts46.v). *)
From RU Require Import Base.Prelude Gen.Tables Model.Uts46 Proofs.Idna_Known Proofs.Idna_Hyp.
From RU Require Import Model.HostT Model.Host Proofs.C09_Host.

(* the Section variable idna_to_ascii of Model/Host.v, filled with the IDNA model: the argument is a &[u8] *)
Definition idna_of (A : adapter) (cfg : bool) (bs : list N) : option (list N) :=
  if forallb is_byteb bs then
    match domain_to_ascii_cow A cfg bs DENY_URL with
    | U32_c13.Ok (_, r) => Some r
    | _ => None
    end
  else None.

Lemma forallb_bytes bs : forallb is_byteb bs = true -> bytes bs.
Proof.
  intros H. apply Forall_forall. intros b Hb. rewrite forallb_forall in H. specialize (H b Hb).
  unfold is_byteb in H. unfold is_byte. lia.
Qed.

(* an answer of idna_of: ToASCII at the options of host.rs accepted the byte input *)
Lemma idna_of_some A cfg bs d : idna_of A cfg bs = Some d <->
  bytes bs /\ exists b, to_ascii A cfg bs DENY_URL HAllow DIgnore = U32_c13.Ok (b, d).
Proof.
  unfold idna_of, domain_to_ascii_cow. destruct (forallb is_byteb bs) eqn:Eb.
  - split.
    + intros H. split; [exact (forallb_bytes bs Eb)|].
      destruct (to_ascii A cfg bs DENY_URL HAllow DIgnore) as [[b r]| |]; try discriminate. inversion H; subst. eauto.
    + intros [_ [b E]]. rewrite E. reflexivity.
  - split; [discriminate|]. intros [Hb _]. apply not_true_iff_false in Eb. exfalso. apply Eb, forallb_forall.
    intros b Hin. pose proof (proj1 (Forall_forall _ _) Hb b Hin) as Hx. unfold is_byte in Hx. unfold is_byteb. lia.
Qed.

Lemma valid_deny_url : valid_deny DENY_URL.
Proof. right. exists T_IDNA_URL_GLYPHLESS, T_IDNA_URL_LIST. vm_compute. reflexivity. Qed.

(* the deny list host.rs passes (regenerated from host.rs) is the URL deny list of uts46.rs plus upper case *)
Lemma url_deny_sweep :
  all_below 128 (fun c => is_upper c || deny_member DENY_URL c || negb (memb c T_HOST_IDNA_DENIED)) = true.
Proof. vm_compute. reflexivity. Qed.

Lemma url_deny_dom_char c : c < 128 -> is_upper c = false -> deny_member DENY_URL c = false -> dom_char_ok c.
Proof.
  intros L H1 H2. split; [exact L|]. pose proof (all_below_spec 128 _ url_deny_sweep c L) as S. cbv beta in S.
  rewrite H1, H2 in S. cbn [orb] in S. apply negb_true_iff in S. exact S.
Qed.

Definition idem_url (A : adapter) (cfg : bool) : Prop := forall d b r, bytes d ->
  to_ascii A cfg d DENY_URL HAllow DIgnore = U32_c13.Ok (b, r) ->
  exists b', to_ascii A cfg r DENY_URL HAllow DIgnore = U32_c13.Ok (b', r).
Definition v4_fixed (A : adapter) (cfg : bool) : Prop := forall a, a < 4294967296 ->
  exists b, to_ascii A cfg (ipv4_display a) DENY_URL HAllow DIgnore = U32_c13.Ok (b, ipv4_display a).

Lemma idna_of_out A cfg : C10_ascii_statement A cfg ->
  forall bs d, idna_of A cfg bs = Some d -> Forall dom_char_ok d.
Proof.
  intros HA bs d H. apply idna_of_some in H. destruct H as (Hb & b & E).
  eapply Forall_impl; [|exact (HA bs DENY_URL HAllow DIgnore b d Hb valid_deny_url E)].
  intros c (L & U & D). exact (url_deny_dom_char c L U D).
Qed.

(* the three clauses of the oracle hypothesis from three facts about ToASCII, the fixed-point clause for the answers in
   K when idempotence is known for the results in K (IdnaOK: every answer; IdnaOK2 of Proofs/C09_Long.v: the answers
   outside Known_C10_long) *)
Theorem idna_of_clauses A cfg (K : list N -> Prop) :
  C10_ascii_statement A cfg ->
  (forall d b r, bytes d -> to_ascii A cfg d DENY_URL HAllow DIgnore = U32_c13.Ok (b, r) -> K r ->
     exists b', to_ascii A cfg r DENY_URL HAllow DIgnore = U32_c13.Ok (b', r)) ->
  v4_fixed A cfg ->
  (forall bs d, idna_of A cfg bs = Some d -> Forall dom_char_ok d)
  /\ (forall bs d, idna_of A cfg bs = Some d -> K d -> idna_of A cfg d = Some d)
  /\ (forall a, a < 4294967296 -> idna_of A cfg (ipv4_display a) = Some (ipv4_display a)).
Proof.
  intros HA HI HV. split; [exact (idna_of_out A cfg HA)|]. split.
  - intros bs d H K1. pose proof (idna_of_out A cfg HA bs d H) as Hd.
    apply idna_of_some in H. destruct H as (Hb & b & E). apply idna_of_some. split; [|exact (HI bs b d Hb E K1)].
    eapply Forall_impl; [|exact Hd]. intros c [L _]. unfold is_byte. lia.
  - intros a Ha. apply idna_of_some. split; [|exact (HV a Ha)].
    eapply Forall_impl; [|exact (proj1 (ipv4_display_digits a Ha))].
    intros c [D| ->]; unfold is_byte; [unfold is_digit in D|]; lia.
Qed.

Theorem IdnaOK_of_model A cfg :
  C10_ascii_statement A cfg -> idem_url A cfg -> v4_fixed A cfg -> IdnaOK (idna_of A cfg).
Proof.
  intros HA HI HV.
  destruct (idna_of_clauses A cfg (fun _ => True) HA (fun d b r Hb E _ => HI d b r Hb E) HV) as (O & F & V).
  constructor; [exact O | intros bs d H; exact (F bs d H I) | exact V].
Qed.

(* clause (2) from C10_idem_statement, if no byte input is in Known_C12.  Both premises fail: C10_idem_statement is
   refuted (C10_idem_refuted, Properties/C10.v), and Known_C12 has members at the URL options (W_C12_1 of
   Proofs/Idna_Known.v for the adapter toy).  An implication only; idem_url2 (Proofs/C09_LongWit.v) is the form that holds *)
Lemma idem_url_from_C10 A cfg : C10_idem_statement A cfg -> AdapterOK A -> PunyRT cfg ->
  (forall d, bytes d -> Known_C12 A cfg d DENY_URL HAllow = false) -> idem_url A cfg.
Proof.
  intros HC HA HP HK d b r Hb E. exact (HC HA HP d DENY_URL HAllow DIgnore b r Hb valid_deny_url (HK d Hb) E).
Qed.

(* instances of the three premises, executed on the IDNA model with the small adapter of Idna_Known.v (the
   premises themselves are universally quantified statements of C10, not established here): "Ab.c" -> "ab.c",
   which is mapped to itself; the dotted decimal text of 1.2.3.4 is mapped to itself; "a b" (space: on the URL
   deny list) is refused; and the host model linked with idna_of reads "Ab.c" as a domain and "0x1.2" as an IPv4 address through it *)
Example idna_of_examples :
  idna_of toy true [65; 98; 46; 99] = Some [97; 98; 46; 99]
  /\ idna_of toy true [97; 98; 46; 99] = Some [97; 98; 46; 99]
  /\ idna_of toy true (ipv4_display 16909060) = Some (ipv4_display 16909060)
  /\ idna_of toy true [97; 32; 98] = None
  /\ idna_of toy true [97; 300] = None
  /\ host_parse (idna_of toy true) [65; 98; 46; 99] = HostT.Ok (HDomain [97; 98; 46; 99])
  /\ host_parse (idna_of toy true) [48; 120; 49; 46; 50] = HostT.Ok (HIpv4 16777218).
Proof. vm_compute. repeat split; reflexivity. Qed.
