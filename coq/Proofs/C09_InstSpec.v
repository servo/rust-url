(* Proofs/C09_InstSpec.v - the Standard's host parser (Spec/WhatwgHostParse.v, assembled from the independent
   transcriptions of Spec/WhatwgHost.v) equals the host model (Model/Host.v) for both values
   of isOpaque - on every input for isOpaque = false, on lists of scalar values for isOpaque = true
   (the premise usv_list of spec_opaque_model) - when both are given the same "domain to ASCII" function and that function never returns a
   forbidden domain code point (the first clause of IdnaOK: host.rs has no check of its own after IDNA, the
   deny list is an argument of the idna call). *)
From RU Require Import Base.Prelude Base.Utf8 Gen.Tables Model.PercentEncoding Model.HostT Model.Host Spec.Whatwg
  Spec.WhatwgHost Spec.WhatwgHostParse Proofs.C09_Host Proofs.C09_V4spec Proofs.C09_V6spec Proofs.C09_V6total
  Proofs.C01_EqEnc.

(* how a result of the implementation's host parsers reads as a host of the Standard: failure is failure (the
   ParseError variant is not part of the Standard); with isOpaque a Domain is an opaque host, the empty one
   the empty host *)
Definition host_to_spec (is_opaque : bool) (r : result host) : option spec_host :=
  match r with
  | Ok (HDomain d) =>
      if is_opaque then match d with [] => Some SEmpty | _ => Some (SOpaque d) end else Some (SDomain d)
  | Ok (HIpv4 a) => Some (SIpv4 a)
  | Ok (HIpv6 p) => Some (SIpv6 p)
  | Err _ => None
  end.

Lemma after_percent_spec h l :
  after_percent h l = if Spec.ascii_hex_digit h && Spec.ascii_hex_digit l
                      then Some (Spec.digit_value h * 16 + Spec.digit_value l) else None.
Proof.
  assert (V : forall c, hex_val c = if Spec.ascii_hex_digit c then Some (Spec.digit_value c) else None).
  { intros c. unfold hex_val, Spec.ascii_hex_digit, Spec.digit_value, Spec.ascii_digit, is_digit.
    destruct ((48 <=? c) && (c <=? 57)) eqn:E1; [reflexivity|]. cbn [orb].
    destruct ((65 <=? c) && (c <=? 70)) eqn:E2.
    - cbn [orb]. replace (c <=? 70) with true by lia. reflexivity.
    - cbn [orb]. destruct ((97 <=? c) && (c <=? 102)) eqn:E3; [|reflexivity].
      replace (c <=? 70) with false by lia. reflexivity. }
  unfold after_percent. rewrite !V. destruct (Spec.ascii_hex_digit h), (Spec.ascii_hex_digit l); reflexivity.
Qed.

Lemma decode_spec_len n : forall bs, (length bs <= n)%nat -> decode bs = spec_percent_decode bs.
Proof.
  induction n as [|n IH]; intros bs Hl.
  - destruct bs; [reflexivity | cbn in Hl; lia].
  - destruct bs as [|b r]; [reflexivity|]. cbn [decode spec_percent_decode]. cbn [length] in Hl.
    destruct (b =? 37).
    + destruct r as [|h [|l r']].
      * reflexivity.
      * reflexivity.
      * rewrite after_percent_spec. cbn [length] in Hl.
        destruct (Spec.ascii_hex_digit h && Spec.ascii_hex_digit l).
        -- f_equal. apply IH. lia.
        -- f_equal. apply IH. cbn [length]. lia.
    + f_equal. apply IH. lia.
Qed.

Theorem decode_is_spec bs : decode bs = spec_percent_decode bs.
Proof. apply (decode_spec_len (length bs)). lia. Qed.

Lemma spec_literal is_opaque idna rest :
  spec_host_parser idna is_opaque (91 :: rest) = host_to_spec is_opaque (literal_result (91 :: rest)).
Proof.
  unfold spec_host_parser, literal_result, ends_with_cp, Host.ends_with. cbn [tl].
  destruct (match rev (91 :: rest) with x :: _ => x =? 93 | [] => false end); [|reflexivity].
  destruct (Spec.ipv6_parse (removelast rest)); destruct is_opaque; reflexivity.
Qed.

Lemma starts_with_cases input :
  (exists rest, input = 91 :: rest /\ Host.starts_with 91 input = true)
  \/ (Host.starts_with 91 input = false
      /\ forall idna o, spec_host_parser idna o input =
           if o then spec_opaque_host_parse input
           else match idna (spec_percent_decode (utf8_encode input)) with
                | None => None
                | Some ascii_domain =>
                    match ascii_domain with
                    | [] => None
                    | _ => if existsb Spec.forbidden_domain_code_point ascii_domain then None
                           else if Spec.ends_in_a_number ascii_domain
                                then match Spec.ipv4_parse ascii_domain with Some a => Some (SIpv4 a) | None => None end
                                else Some (SDomain ascii_domain)
                    end
                end).
Proof.
  destruct input as [|c rest]; [right; split; [reflexivity | intros; reflexivity]|].
  destruct (c =? 91) eqn:E.
  - left. apply N.eqb_eq in E. subst c. exists rest. split; reflexivity.
  - right. split; [cbn [Host.starts_with]; exact E|]. intros idna o. unfold spec_host_parser.
    destruct c as [|p]; [reflexivity|].
    do 7 (destruct p as [p|p|]; try reflexivity). apply N.eqb_neq in E. contradiction.
Qed.

Theorem spec_opaque_model input : usv_list input ->
  spec_host_parser (fun _ => None) true input = host_to_spec true (host_parse_opaque input).
Proof.
  intros Hu. destruct (starts_with_cases input) as [(rest & -> & Hs)|[Hs Hsp]].
  - rewrite spec_literal. rewrite (proj2 (literal_spec (fun _ => None) _ Hs)). reflexivity.
  - rewrite Hsp. unfold spec_opaque_host_parse, host_parse_opaque, host_parse_opaque_x. rewrite Hs.
    unfold is_invalid_host_char. rewrite invalid_host_is_spec.
    destruct (existsb (fun c => memb c Spec.forbidden_host_code_points) input); [reflexivity|].
    cbn [xr_result host_to_spec]. rewrite (pe_display_bridge T_CONTROLS in_c0_control_set input rel_CONTROLS Hu).
    destruct (utf8_percent_encode in_c0_control_set input); reflexivity.
Qed.

Theorem spec_domain_model idna input :
  (forall bs d, idna bs = Some d -> Forall dom_char_ok d) ->
  spec_host_parser idna false input = host_to_spec false (host_parse idna input).
Proof.
  intros Hout. destruct (starts_with_cases input) as [(rest & -> & Hs)|[Hs Hsp]].
  - rewrite spec_literal. rewrite (proj1 (literal_spec idna _ Hs)). reflexivity.
  - rewrite Hsp. rewrite <- decode_is_spec. unfold host_parse, host_parse_x. rewrite Hs.
    destruct (idna (decode (utf8_encode input))) as [dom|] eqn:Ei; [|reflexivity].
    destruct dom as [|c dom']; [reflexivity|].
    assert (Hf : existsb Spec.forbidden_domain_code_point (c :: dom') = false).
    { destruct (existsb Spec.forbidden_domain_code_point (c :: dom')) eqn:E; [|reflexivity].
      apply existsb_exists in E. destruct E as (x & Hx & Hfx). pose proof (Hout _ _ Ei) as Ho.
      rewrite Forall_forall in Ho. destruct (dom_char_facts x (Ho x Hx)) as (_ & _ & Hnf & _). congruence. }
    rewrite Hf. rewrite <- ends_in_a_number_spec.
    destruct (Host.ends_in_a_number (c :: dom')); [|reflexivity].
    rewrite parse_ipv4addr_spec by discriminate.
    destruct (Spec.ipv4_parse (c :: dom')); reflexivity.
Qed.

(* the two together, relative to IdnaOK *)
Theorem spec_host_parser_model idna input : IdnaOK idna ->
  spec_host_parser idna false input = host_to_spec false (host_parse idna input)
  /\ (usv_list input -> spec_host_parser idna true input = host_to_spec true (host_parse_opaque input)).
Proof.
  intros OK. split; [exact (spec_domain_model idna input (idna_out idna OK))|].
  intros Hu. rewrite <- (spec_opaque_model input Hu).
  destruct (starts_with_cases input) as [(rest & -> & _)|[_ Hsp]].
  - rewrite !spec_literal. reflexivity.
  - rewrite !Hsp. reflexivity.
Qed.

(* without the premise the two differ exactly by the Standard's forbidden-domain-code-point check: an oracle
   that returns "a b" (with a space) makes the model accept what the Standard refuses *)
Example spec_domain_needs_premise :
  let idna := fun _ : list N => Some [97; 32; 98] in
  spec_host_parser idna false [120] = None /\ host_parse idna [120] = Ok (HDomain [97; 32; 98]).
Proof. vm_compute. split; reflexivity. Qed.

(* the serializers agree on everything the parsers return *)
Definition spec_of_host (is_opaque : bool) (h : host) : spec_host :=
  match h with
  | HDomain d => if is_opaque then match d with [] => SEmpty | _ => SOpaque d end else SDomain d
  | HIpv4 a => SIpv4 a
  | HIpv6 p => SIpv6 p
  end.

Lemma dec_is_dec_u8_sweep : all_below 256 (fun x => list_eqb (dec x) (dec_u8 x)) = true.
Proof. vm_compute. reflexivity. Qed.

Lemma dec_is_dec_u8 x : x < 256 -> dec x = dec_u8 x.
Proof.
  intros H. pose proof (all_below_spec 256 _ dec_is_dec_u8_sweep x H) as S. cbv beta in S.
  apply list_eqb_spec. exact S.
Qed.

Theorem spec_serializer_model is_opaque h :
  match h with
  | HIpv4 a => a < 4294967296
  | HIpv6 p => length p = 8%nat /\ Forall (fun x => x < 65536) p
  | HDomain _ => True
  end ->
  spec_host_serializer (spec_of_host is_opaque h) = host_display h.
Proof.
  destruct h as [d|a|p]; intros Hw.
  - cbn [spec_of_host]. destruct is_opaque; [destruct d|]; reflexivity.
  - cbn [spec_of_host spec_host_serializer host_display]. unfold spec_ipv4_serialize, ipv4_display.
    rewrite !dec_is_dec_u8 by lia. reflexivity.
  - cbn [spec_of_host spec_host_serializer host_display]. rewrite (write_ipv6_spec p Hw). reflexivity.
Qed.
