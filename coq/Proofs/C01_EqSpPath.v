(* Proofs/C01_EqSpPath.v - C01 equivalence, special non-file schemes: the path loop of parser.rs with
   '\' as a second separator computes exactly the Standard's segment list (`spath_s`), unless a ".."
   meets a drive-letter-shaped last segment (finding F-C01-9: `spath_ok_s` computes that on the
   Standard's own state); parse_path_start for a special URL. *)
From RU Require Import Base.Prelude Base.Utf8 Gen.Tables Model.PercentEncoding Model.UrlRecord Model.Parser
  Model.Setters Spec.Whatwg Proofs.C02_Parts Proofs.C02_Path Proofs.C02_PathL1
  Proofs.C08_Input Proofs.C01_EqRun Proofs.C01_EqOpaque Proofs.C01_EqPathSpec Proofs.C01_EqPath
  Proofs.C01_EqSpSpec.

(* finish_segment, exactly (special non-file scheme) *)
Section FinishExactS.
Variable pre : list N.
Variable dbg : bool.
Notation ps := (nlen pre).
Notation BsP := (Bs pre).

Lemma finish_exact_s segs cur (ews : bool) hh :
  forallb no_slash segs = true -> fin_ok segs cur = true ->
  finish_segment dbg STSpecialNotFile ps (BsP segs ++ cur ++ (if ews then [47] else [])) (nlen (BsP segs)) ews hh
  = POk (BsP (fst (fin_step segs cur ews)) ++ snd (fin_step segs cur ews), hh).
Proof. exact (finish_exact pre dbg STSpecialNotFile segs cur ews hh eq_refl). Qed.

End FinishExactS.

(* the path loop, exactly *)
(* no ".." of the text meets a drive-letter-shaped last segment (computed on the Standard's state) *)
Fixpoint spath_ok_s (t : list N) (P : list (list N)) (B : list N) : bool :=
  match t with
  | [] => fin_ok P B
  | c :: r => if is_sl c then fin_ok P B && spath_ok_s r (fin P B true) []
              else if is_qh c then fin_ok P B
              else spath_ok_s r P (B ++ utf8_percent_encode_cp in_path_set c)
  end.

Section LoopExactS.
Variable pre : list N.
Variable dbg : bool.
Notation ps := (nlen pre).
Notation loop := (parse_path_loop dbg CUrlParser STSpecialNotFile ps).
Notation BsP := (Bs pre).
Notation enc pend := (encode T_PATH (utf8_encode (rev pend))).

Theorem loop_exact_s l : forall segs cur pend hh, usv_list l -> pend_ok pend ->
  forallb no_slash segs = true -> no_slash cur = true ->
  spath_ok_s (ntnl l) segs (cur ++ enc pend) = true ->
  exists segs' last',
    loop l (BsP segs ++ cur) (nlen (BsP segs)) pend hh = POk (BsP segs' ++ last', hh, cbb_rest l)
    /\ fst (spath_s (ntnl l) segs (cur ++ enc pend)) = segs' ++ [last']
    /\ snd (spath_s (ntnl l) segs (cur ++ enc pend)) = ntnl (cbb_rest l).
Proof.
  assert (forall c, is_sl c = sep STSpecialNotFile c) as Es by (intros c; unfold is_sl, sep; rewrite andb_true_r; reflexivity).
  intros segs cur pend hh Hu Hp Hsegs Hn Hok.
  rewrite spath_s_is_g, (spath_g_ext _ _ _ Es).
  apply (loop_exact_g pre dbg STSpecialNotFile eq_refl l segs cur pend hh Hu Hp Hsegs Hn).
  rewrite <- (spath_ok_g_ext _ _ _ Es). exact Hok.
Qed.

End LoopExactS.

(* neither '?' nor '#' inside the Standard's segments *)
Definition no_qh (s : list N) : bool := forallb (fun c => negb ((c =? 63) || (c =? 35))) s.

Lemma hex_upper_ge48' d : 48 <= hex_upper d.
Proof. unfold hex_upper. destruct (d <? 10); lia. Qed.

Lemma hex_upper_not_qh d : negb ((hex_upper d =? 63) || (hex_upper d =? 35)) = true.
Proof. unfold hex_upper. destruct (d <? 10) eqn:E; lia. Qed.

Lemma upe_cp_no_qh c : is_qh c = false -> no_qh (utf8_percent_encode_cp in_path_set c) = true.
Proof.
  intros H. unfold utf8_percent_encode_cp, no_qh. destruct (in_path_set c).
  - apply forallb_flat_map. intros b. unfold percent_encode_byte. cbn [forallb].
    rewrite !hex_upper_not_qh. reflexivity.
  - cbn [forallb]. unfold is_qh in H. rewrite H. reflexivity.
Qed.

Lemma fin_no_qh P B sep : forallb no_qh P = true -> no_qh B = true -> forallb no_qh (fin P B sep) = true.
Proof. exact (fin_forallb no_qh P B sep eq_refl). Qed.

Lemma spath_s_no_qh t : forall P B, forallb no_qh P = true -> no_qh B = true ->
  forallb no_qh (fst (spath_s t P B)) = true.
Proof.
  intros P B. rewrite spath_s_is_g. revert P B.
  apply (spath_g_forallb is_sl fin no_qh eq_refl); [intros P B s; apply fin_no_qh|].
  intros c B _ Eq HB. unfold no_qh in *. rewrite forallb_app, HB. apply upe_cp_no_qh. exact Eq.
Qed.

Lemma upe_cp_no_slash_s c : (c =? 47) = false -> no_slash (utf8_percent_encode_cp in_path_set c) = true.
Proof. exact (upe_cp_no_slash c). Qed.

Lemma spath_s_no_slash t : forall P B, forallb no_slash P = true -> no_slash B = true ->
  forallb no_slash (fst (spath_s t P B)) = true.
Proof.
  intros P B. rewrite spath_s_is_g. revert P B.
  apply (spath_g_forallb is_sl fin no_slash eq_refl); [intros P B s; apply fin_no_slash|].
  intros c B Esl _ HB. unfold no_slash in *. rewrite forallb_app, HB. apply upe_cp_no_slash.
  unfold is_sl in Esl. apply orb_false_iff in Esl. tauto.
Qed.

Lemma flat_no_qh (segs : list (list N)) : forallb no_qh segs = true ->
  forallb (fun c => negb ((c =? 63) || (c =? 35))) (flat_map (fun s => 47 :: s) segs) = true.
Proof.
  induction segs as [|s segs IH]; intros H; [reflexivity|]. cbn [forallb] in H. apply andb_true_iff in H. destruct H as [H1 H2].
  cbn [flat_map app forallb]. rewrite forallb_app. unfold no_qh in H1. rewrite H1, (IH H2). reflexivity.
Qed.

(* path start *)
Section PathStartS.
Variable dbg : bool.

Lemma is_sl_model c : is_slash_or_bslash c = is_sl c.
Proof. reflexivity. Qed.

Theorem path_start_spec_s rem ser hh : usv_list rem -> ends_with_byte 47 ser = false ->
  spath_ok_s (path_text_s (ntnl rem)) [] [] = true ->
  exists segs rest,
    parse_path_start dbg CUrlParser STSpecialNotFile hh ser rem = POk (ser ++ flat_map (fun s => 47 :: s) segs, hh, rest)
    /\ usv_list rest
    /\ forallb (fun c => negb ((c =? 63) || (c =? 35))) (flat_map (fun s => 47 :: s) segs) = true
    /\ forallb no_slash segs = true /\ segs <> []
    /\ (forall u, su_path u = SPList [] -> is_special u = true -> su_query u = None -> su_fragment u = None ->
          sauth_tail_s u (ntnl rem) = set_fragment (set_query (set_path u (SPList segs)) (pqf_q STSpecialNotFile rest)) (pqf_f rest))
    /\ match ntnl rest with [] => True | c :: _ => is_qh c = true end.
Proof.
  intros Hu He Hok.
  (* the input the path loop runs on *)
  assert (exists l', parse_path_start dbg CUrlParser STSpecialNotFile hh ser rem
                     = parse_path dbg CUrlParser STSpecialNotFile hh (nlen ser) (ser ++ [47]) l'
                     /\ ntnl l' = path_text_s (ntnl rem) /\ usv_list l') as (l' & Epp & Hl' & Hul').
  { unfold parse_path_start, inp_split_first. cbn [st_is_special]. rewrite He. cbn [negb].
    destruct (ntnl rem) as [|c t] eqn:Ent.
    - rewrite (inp_next_none rem Ent). exists rem. split; [reflexivity|]. split; [rewrite Ent; reflexivity | exact Hu].
    - destruct (inp_next_some rem c t Ent) as (r' & En & Hr' & Et). rewrite En.
      pose proof (inp_next_usv rem c r' Hu En) as Hur'. cbn [path_text_s]. rewrite is_sl_model.
      destruct (is_sl c).
      + exists r'. split; [reflexivity|]. split; [exact Hr' | exact Hur'].
      + exists rem. split; [reflexivity|]. split; [exact Ent | exact Hu]. }
  rewrite Epp. unfold parse_path.
  assert (pend_ok []) as Hp0 by (split; [constructor | reflexivity]).
  assert (Bs ser [] = ser ++ [47]) as EB by (unfold Bs; cbn; rewrite !app_nil_r; reflexivity).
  rewrite <- Hl' in Hok.
  destruct (loop_exact_s ser dbg l' [] [] [] hh Hul' Hp0 eq_refl eq_refl Hok) as (segs & last & Hloop & Hfst & Hsnd).
  cbn [app rev utf8_encode flat_map encode] in Hfst, Hsnd.
  rewrite app_nil_r, EB in Hloop. rewrite Hloop.
  exists (segs ++ [last]), (cbb_rest l').
  split.
  { f_equal. f_equal. f_equal. rewrite path_text_flat. unfold Bs, path_text. rewrite <- !app_assoc. reflexivity. }
  split; [apply usv_cbb_rest; exact Hul'|].
  split; [apply flat_no_qh; rewrite <- Hfst; apply spath_s_no_qh; reflexivity|].
  split; [rewrite <- Hfst; apply spath_s_no_slash; reflexivity|].
  split; [intros K; apply app_eq_nil in K; destruct K as [_ K]; discriminate K|].
  split.
  2:{ pose proof (cbb_rest_head l') as Hh. destruct (cbb_rest l') as [|d dr]; [exact I|]. destruct Hh as [Hh1 Hh2].
      rewrite ntnl_cons by exact Hh2. exact Hh1. }
  intros u HP Hspu Hq Hf. unfold sauth_tail_s. rewrite <- Hl'. rewrite Hfst, Hsnd.
  apply (tail_url_st STSpecialNotFile); [exact Hspu | exact Hq | exact Hf | apply cbb_rest_head].
Qed.

End PathStartS.
