(* Proofs/C01_EqFileOne.v - fourth file-BASE arm of the C01 equivalence: a reference with exactly ONE
   leading '/' '\' against a FILE base - scheme-less ("/x") or behind "file:" ("file:/x").  The Standard: file state ->
   file slash state, "otherwise" arm: host of the base; the first path segment of the base is carried over when it is
   a normalized Windows drive letter and the text behind the separator does not start with a Windows drive letter;
   path state on the text behind the separator.  parser.rs parse_file: when the text behind the separator does not
   start with a drive letter, "file://" + host_str() of the base (or "file:///" + the drive letter of the base, host
   dropped), else "file://" with the host dropped; parse_path (file, has_host = false) from the separator on.
   Proved: (a) no drive letter in front of the text, the first segment of the base path is not a normalized drive
   letter: host of the base kept on both sides; (b) the text starts with a Windows drive letter and the host of the
   base is the empty host: parser.rs drops the host of the base, the Standard keeps it - the same when it is empty;
   (c) the same dispatch in the file state itself: a text with NO leading separator that starts with a Windows drive
   letter ("C|/y", "file:C:/y") against a base with the empty host;
   (d) one separator, no drive letter behind it, the first segment of the base path IS a normalized drive letter and the
   host of the base is the empty host: the Standard carries the segment over, parser.rs starts from "file:///" + it. *)
From Coq Require Import ZifyBool ZifyN.
From RU Require Import Base.Prelude Base.Utf8 Model.PercentEncoding Model.HostT Model.UrlRecord Model.Parser
  Model.Setters Model.WF Model.Host Model.KnownC01 Spec.Whatwg Spec.WhatwgHostParse Proofs.ListN
  Proofs.C02_Parts Proofs.C02_Path Proofs.C02_PathL1 Proofs.C03_WF Proofs.C04_CheckInv Proofs.C08_Input
  Proofs.C01_EqRun Proofs.C01_EqEnc Proofs.C01_EqApi Proofs.C06_WFI Proofs.C08_Simple Proofs.C01_EqRef
  Proofs.C01_EqAuthSpec Proofs.C01_EqAuthModel Proofs.C01_EqAuth Proofs.C01_EqRel Proofs.C01_EqRelPath
  Proofs.C01_EqRelArms Proofs.C01_EqSpSpec Proofs.C01_EqSpPath Proofs.C01_EqSpBase Proofs.C01_EqAsm
  Proofs.C01_EqShape Proofs.C01_EqCover Proofs.C01_EqFileSpec Proofs.C01_EqFilePath Proofs.C01_EqFileRel
  Proofs.C01_EqFile Proofs.C01_EqFileAsm Proofs.C01_EqFileRel2 Proofs.C01_EqFileBase Proofs.C01_EqFileBase2.

(* specification side *)
(* the segment list the file slash state hands to the path state: the first segment of the base path when it is a
   normalized Windows drive letter and the text R1 behind the separator does not start with a Windows drive letter *)
Definition one_init (sb : spec_url) (R1 : list N) : list (list N) :=
  match Whatwg.path_segments sb with
  | p0 :: _ => if negb (starts_with_windows_drive_letter R1) && is_normalized_windows_drive_letter p0 then [p0] else []
  | [] => []
  end.

Definition no_sl_head (R1 : list N) : bool := match R1 with c2 :: _ => negb (is_sl c2) | [] => true end.

Section SpecFileOne.
Variable shp : bool -> list N -> option spec_host.
Variable inp : list N.
Variable sb : spec_url.
Hypothesis Hop : has_opaque_path sb = false.
Hypothesis Hf : list_eqb (su_scheme sb) str_file = true.

Notation RunsB := (Runs shp inp (Some sb)).

Theorem runs_file_one_g pre u c1 R1 : inp = pre ++ c1 :: R1 -> (u = empty_url \/ u = u_file0) ->
  is_sl c1 = true -> no_sl_head R1 = true ->
  RunsB (at_pos StFile pre [] false false false u)
        (BDone (file_tail (fkeep sb (one_init sb R1)) (spath_f R1 (one_init sb R1) []))).
Proof.
  intros Hin Hu Esl1 Hh.
  assert (fu u = fu empty_url) as Efu by (destruct Hu as [->| ->]; reflexivity).
  assert (inp = (pre ++ [c1]) ++ R1) as Hin1 by (exact (snoc_split _ _ _ _ Hin)).
  eapply runs_step_next with (st' := StFileSlash) (buf' := []) (u' := fu u); [exact Hin | |].
  { rewrite (step_unfold shp inp (Some sb) _ pre (c1 :: R1)) by exact Hin. cbn zeta. cbn [hd_error]. unfold st_file.
    cbn [cis]. fold (is_sl c1). rewrite Esl1. reflexivity. }
  set (P0 := one_init sb R1).
  eapply runs_step_back with (st' := StPath) (buf' := []) (u' := fkeep sb P0); [exact Hin1 | |].
  - rewrite (step_unfold shp inp (Some sb) _ (pre ++ [c1]) R1) by exact Hin1. cbn zeta. unfold st_file_slash, base_is_file.
    rewrite Hf. cbn [m_url at_pos]. rewrite Efu.
    assert (match hd_error R1 with Some x => x :: tl R1 | None => [] end = R1) as -> by (destruct R1; reflexivity).
    assert (cis (hd_error R1) 47 || cis (hd_error R1) 92 = false) as ->.
    { destruct R1 as [|c2 T]; [reflexivity|]. cbn [hd_error cis]. exact (proj1 (negb_true_iff _) Hh). }
    unfold P0, one_init.
    destruct (Whatwg.path_segments sb) as [|p0 Pr]; [rewrite andb_false_r; reflexivity|].
    destruct (negb (starts_with_windows_drive_letter R1) && is_normalized_windows_drive_letter p0); reflexivity.
  - exact (runs_path_f shp inp (Some sb) R1 (pre ++ [c1]) [] false false false (fkeep sb P0) P0 Hin1 eq_refl eq_refl).
Qed.

End SpecFileOne.

(* the scheme-less reference *)
Theorem spec_file_rel_one shp sb input c1 R1 :
  spec_clean input = c1 :: R1 -> is_sl c1 = true -> no_sl_head R1 = true ->
  has_opaque_path sb = false -> list_eqb (su_scheme sb) str_file = true ->
  spec_basic_url_parse shp input (Some sb)
  = BDone (file_tail (fkeep sb (one_init sb R1)) (spath_f R1 (one_init sb R1) [])).
Proof.
  intros Ecl E1 Hh Hop Hf. set (inp := spec_clean input) in *.
  pose proof (is_sl_scheme_none c1 R1 E1) as Hs. rewrite <- Ecl in Hs.
  apply spec_parse_of_runs. fold inp. apply runs_no_scheme; [exact Hs|].
  eapply (runs_step_stay shp inp (Some sb) StNoScheme [] inp) with (st' := StFile) (buf' := []);
    [reflexivity | rewrite Ecl; discriminate | |].
  { rewrite (step_unfold shp inp (Some sb) _ [] inp) by reflexivity. cbn zeta.
    unfold st_no_scheme. rewrite Hop, Hf. cbn [andb negb]. reflexivity. }
  exact (runs_file_one_g shp inp sb Hf [] empty_url c1 R1 Ecl (or_introl eq_refl) E1 Hh).
Qed.

(* "file:" + the reference *)
Theorem spec_file_same_one shp sb input c1 R1 :
  spec_scheme (spec_clean input) = Some (str_file, c1 :: R1) -> is_sl c1 = true -> no_sl_head R1 = true ->
  has_opaque_path sb = false -> list_eqb (su_scheme sb) str_file = true ->
  spec_basic_url_parse shp input (Some sb)
  = BDone (file_tail (fkeep sb (one_init sb R1)) (spath_f R1 (one_init sb R1) [])).
Proof.
  intros Hs E1 Hh Hop Hf. set (inp := spec_clean input) in *.
  apply spec_parse_of_runs. fold inp.
  destruct (runs_scheme shp inp (Some sb) str_file (c1 :: R1)
              (BDone (file_tail (fkeep sb (one_init sb R1)) (spath_f R1 (one_init sb R1) []))) Hs) as (pre & Hin & K).
  apply K. clear K.
  apply (runs_scheme_colon_file shp inp (Some sb) pre (c1 :: R1) _ Hin).
  assert (inp = (pre ++ [58]) ++ c1 :: R1) as Hin1 by (rewrite Hin, <- app_assoc; reflexivity).
  exact (runs_file_one_g shp inp sb Hf (pre ++ [58]) u_file0 c1 R1 Hin1 (or_intror eq_refl) E1 Hh).
Qed.

(* what `related` says about the front of a file base *)
Section FrontF.
Variable dbg : bool.
Variable shs : spec_host -> list N.

Theorem file_base_front b sb sh : related dbg shs b sb -> su_scheme sb = str_file -> su_host sb = Some sh ->
  scheme_end b = 4 /\ username_end b = 7 /\ host_start b = 7 /\ host_end b = 7 + nlen (shs sh)
  /\ path_start b = 7 + nlen (shs sh) /\ port b = None
  /\ nfirstn (path_start b) (ser b) = s_file_css ++ shs sh
  /\ match host_str b with
     | Some (Some hs) => (s_file_css ++ hs, nlen (s_file_css ++ hs), hosti b)
     | _ => (s_file_css, 7, HI_None)
     end = (s_file_css ++ shs sh, 7 + nlen (shs sh), hosti b).
Proof.
  intros R Hs Eh.
  pose proof (rel_wf _ _ _ _ R) as W. pose proof (path_start_le_len b W) as Lps.
  destruct (related_pre dbg shs b sb R) as [_ Epre].
  destruct (related_scheme_colon dbg shs b sb R) as (_ & Ese & _).
  destruct (rel_valid _ _ _ _ R) as [_ V]. destruct (V Hs) as (Vu & Vp & Vpo).
  assert (spec_front shs sb = s_file_css ++ shs sh) as EF.
  { unfold spec_front, includes_credentials. rewrite Eh, Hs, Vu, Vp, Vpo. cbn [list_eqb negb orb app]. rewrite app_nil_r. reflexivity. }
  rewrite EF in Epre.
  assert (path_start b = 7 + nlen (shs sh)) as Eps.
  { rewrite <- (nlen_nfirstn (path_start b) (ser b) Lps), Epre, nlen_app. reflexivity. }
  rewrite Hs in Ese. change (nlen str_file) with 4 in Ese.
  assert (has_authority_b b = true) as Ha by (rewrite (related_host_iff dbg shs b sb R), Eh; reflexivity).
  pose proof (wf_auth_facts b W Ha) as F.
  pose proof (af_ue F) as B1. pose proof (af_hs F) as B2. pose proof (af_he F) as B3. pose proof (af_ps F) as B4.
  pose proof (af_port F) as B5.
  (* the hostname string *)
  pose proof (host_str_eval b W) as Ehs. cbn [pidx] in Ehs.
  destruct (accessors_reconcatenate dbg b W)
    as (sch & un & pw & hs & pth & qb & fb & Es1 & Eun & Epw & Ehs' & Ept & Eq & Ef & _).
  pose proof (api_by_accessors dbg b W sch un pw hs pth qb fb Es1 Eun Epw Ehs' Ept Eq Ef) as Ab.
  rewrite (rel_api _ _ _ _ R) in Ab. unfold api_of_parts, spec_api_list in Ab.
  injection Ab as _ _ _ _ _ E6 _ _ _ _.
  unfold get_hostname in E6. rewrite Eh in E6. cbn [serialize_host_opt] in E6.
  rewrite Ehs in Ehs'. injection Ehs' as Ehs'. subst hs.
  destruct (has_host b) eqn:Hh.
  - cbn [optl] in E6.
    assert (nlen (shs sh) = host_end b - host_start b) as Ln.
    { rewrite E6. apply piece_len; lia. }
    assert (host_start b = 7) as E7 by lia.
    assert (host_end b = 7 + nlen (shs sh)) as E8 by lia.
    assert (port b = None) as Epo.
    { destruct (port b) as [p|]; [|reflexivity]. destruct B5 as (_ & K & _). lia. }
    repeat split; try assumption; try lia.
    rewrite Ehs, <- E6. rewrite nlen_app. reflexivity.
  - cbn [optl] in E6.
    assert (nlen (shs sh) = 0) as Ln by (rewrite E6; reflexivity).
    assert (port b = None) as Epo.
    { destruct (port b) as [p|]; [|reflexivity]. destruct B5 as (_ & K & _). lia. }
    repeat split; try assumption; try lia.
    rewrite Ehs, E6. rewrite app_nil_r.
    unfold has_host in Hh. destruct (hosti b); try discriminate Hh. reflexivity.
Qed.

End FrontF.

(* model side *)
Lemma split_on_aux_hd p0 : forall cur Pr, no_slash p0 = true ->
  exists tl, split_on_aux 47 cur (p0 ++ flat Pr) = (rev cur ++ p0) :: tl.
Proof.
  induction p0 as [|c p IH]; intros cur Pr H.
  - cbn [app]. rewrite app_nil_r. destruct Pr as [|q Q]; [exists []; reflexivity|].
    unfold flat. cbn [flat_map app split_on_aux]. replace (47 =? 47) with true by reflexivity. eexists. reflexivity.
  - unfold no_slash in H. cbn [forallb] in H. apply andb_true_iff in H. destruct H as [H1 H2]. apply negb_true_iff in H1.
    cbn [app split_on_aux]. rewrite H1. destruct (IH (c :: cur) Pr H2) as [tl E]. exists tl. rewrite E.
    cbn [rev]. rewrite <- app_assoc. reflexivity.
Qed.

Section ModelFileOne.
Variable dbg : bool.
Variable hp hpo : list N -> result host.
Variable hd : host -> list N.
Variable shp : bool -> list N -> option spec_host.
Variable shs : spec_host -> list N.

Notation PP hh ps s l := (parse_path dbg CUrlParser STFile hh ps s l).

Lemma base_first_segment_spec b sb p0 Pr : related dbg shs b sb -> has_opaque_path sb = false ->
  Whatwg.path_segments sb = p0 :: Pr -> no_slash p0 = true -> base_first_segment b = Some p0.
Proof.
  intros R Hop EP Hns.
  pose proof (rel_wf _ _ _ _ R) as W.
  destruct (accessors_reconcatenate dbg b W)
    as (sch & un & pw & hs & pth & qb & fb & Es1 & Eun & Epw & Ehs & Ept & Eq & Ef & _).
  pose proof (api_by_accessors dbg b W sch un pw hs pth qb fb Es1 Eun Epw Ehs Ept Eq Ef) as Ab.
  rewrite (rel_api _ _ _ _ R) in Ab. unfold api_of_parts, spec_api_list in Ab.
  injection Ab as _ _ _ _ _ _ _ E8 _ _.
  assert (serialize_path sb = flat (p0 :: Pr)) as EPth.
  { unfold get_pathname, serialize_path, flat. unfold Whatwg.path_segments in EP. unfold has_opaque_path in Hop.
    destruct (su_path sb); [discriminate Hop | rewrite EP; reflexivity]. }
  unfold get_pathname in E8. rewrite EPth in E8. subst pth.
  unfold base_first_segment. rewrite Ept. unfold flat. cbn [flat_map app]. fold (flat Pr).
  unfold split_on. destruct (split_on_aux_hd p0 [] Pr Hns) as [tl ->]. reflexivity.
Qed.

(* arm (a): the host of the base is kept *)
Theorem parse_file_one_keep b sb sh l c1 l1 p0 Pr :
  related dbg shs b sb -> has_opaque_path sb = false -> su_scheme sb = str_file -> su_host sb = Some sh ->
  Whatwg.path_segments sb = p0 :: Pr -> no_slash p0 = true -> is_normalized_windows_drive_letter p0 = false ->
  usv_list l -> inp_next l = Some (c1, l1) -> is_sl c1 = true -> no_sl_head (ntnl l1) = true ->
  starts_with_windows_drive_letter (ntnl l1) = false ->
  fp_ok false (ntnl l1) (ntnl l1) = true ->
  let su := file_tail (fkeep sb []) (spath_f (ntnl l1) [] []) in
  exists u, oob (U32_MAX_P < nlen (ser u)) (parse_file dbg hp hd None CUrlParser STFile (Some b) l) u
            /\ related dbg shs u su /\ spec_base_ok su = true.
Proof.
  intros R Hop Hs Eh EP Hns0 Hnw Hu En1 Esl1 Hh Hw Hok su.
  pose proof (inp_next_usv l c1 l1 Hu En1) as Hu1.
  destruct (file_base_front dbg shs b sb sh R Hs Eh) as (Ese & Eue & Ehs & Ehe & Eps & Epo & Epre & Ehost).
  set (R1 := ntnl l1) in *.
  rewrite fp_ok_same in Hok. apply andb_true_iff in Hok. destruct Hok as [Hfok Hst].
  set (pre := s_file_css ++ shs sh) in *.
  assert (nlen pre = 7 + nlen (shs sh)) as Lpre by (unfold pre; rewrite nlen_app; reflexivity).
  destruct (file_path_loop dbg pre l1 false Hu1 Hfok) as [Hloop Hsnd]. fold R1 in Hloop, Hsnd.
  apply strip_f_stable in Hst. rewrite Hst in Hloop.
  set (P1 := fst (spath_f R1 [] [])) in *. set (T := flat P1) in *.
  set (rest := cbb_rest l1) in *. set (q := pqf_q STFile rest). set (f := pqf_f rest).
  assert (usv_list rest) as Hurest by (apply usv_cbb_rest; exact Hu1).
  assert (forallb no_slash P1 = true) as Hns1 by (apply spath_f_no_slash; reflexivity).
  assert (forallb C06_WFI.no_qh T = true) as Hqh1 by (apply flat_no_qh; apply spath_f_no_qh; reflexivity).
  assert (P1 <> []) as Hne1.
  { intros K. assert (strip_f P1 = [[]]) as K2 by (rewrite K; reflexivity). rewrite Hst, K in K2. discriminate K2. }
  assert (su = rel_url sb P1 q f) as ES.
  { unfold su. rewrite (file_tail_rel_url sb [] R1 rest Hs (rel_valid _ _ _ _ R) Hsnd (cbb_rest_head l1)). reflexivity. }
  assert (spec_base_ok (rel_url sb P1 q f) = true) as HBok.
  { unfold spec_base_ok, rel_url. cbn [su_scheme Whatwg.path_segments su_path]. rewrite Hs, Hns1. reflexivity. }
  assert (match ntnl rest with [] => True | c :: _ => is_qh c = true end) as Hhead.
  { pose proof (cbb_rest_head l1) as Hh'. fold rest in Hh'. destruct rest as [|d dr]; [exact I|]. destruct Hh' as [Hh1 Hh2].
    rewrite ntnl_cons by exact Hh2. exact Hh1. }
  exists (auth_path_url b T q f). rewrite ES. split; [|split; [|exact HBok]].
  - unfold parse_file.
    assert (inp_split_first l = (Some c1, l1)) as -> by (unfold inp_split_first; rewrite En1; reflexivity).
    cbv iota beta. rewrite is_sl_model, Esl1.
    assert (match fst (inp_split_first l1) with Some c => is_slash_or_bslash c | None => false end = false) as Hnext.
    { unfold inp_split_first. destruct R1 as [|c2 T2] eqn:ER1.
      - rewrite (inp_next_none l1 ER1). reflexivity.
      - destruct (inp_next_some l1 c2 T2 ER1) as (l2 & En2 & _ & _). rewrite En2. cbn [no_sl_head] in Hh.
        apply negb_true_iff in Hh. exact Hh. }
    destruct (inp_split_first l1) as [nc an]. cbn [fst] in Hnext.
    rewrite Hnext. rewrite swdl_segment_spec. fold R1. rewrite Hw. cbn [negb].
    rewrite (base_first_segment_spec b sb p0 Pr R Hop EP Hns0). rewrite is_nwdl_agree, Hnw.
    rewrite Ehost. fold pre. rewrite <- Lpre.
    rewrite (file_lead_sep dbg hp hpo shp pre l c1 l1 false En1 Esl1). rewrite Hloop. cbn [pbind].
    eapply oob_bind.
    { apply (pqf_oob None (U32_MAX_P < nlen (ser (auth_path_url b T q f)))); [exact Hurest | reflexivity | exact Hhead |].
      fold q f. fold T. unfold auth_path_url. cbn [ser]. rewrite Epre. fold pre. intros Hlt. exact Hlt. }
    fold q f T. right. unfold auth_path_url, file_url. rewrite Epre, Ese, Eue, Ehs, Ehe, Eps, Epo. fold pre. rewrite Lpre. reflexivity.
  - apply (related_auth_path_any dbg shs b sb sh P1 q f R); [exact Eh | exact Hqh1 | exact Hne1 |].
    pose proof (pqf_q_clean_f rest Hurest) as Hq. fold q in Hq. destruct q as [Q|]; [|exact I].
    exact (clean_query_no_h STFile Q Hq).
Qed.

(* arm (b): the text behind the separator starts with a Windows drive letter - parser.rs drops the host of the base,
   the Standard keeps it: the same URL when that host is the empty host *)
Theorem parse_file_one_drive b sb l c1 l1 :
  su_host sb = Some SEmpty -> shs SEmpty = [] ->
  usv_list l -> inp_next l = Some (c1, l1) -> is_sl c1 = true -> no_sl_head (ntnl l1) = true ->
  starts_with_windows_drive_letter (ntnl l1) = true ->
  fp_ok false (ntnl l1) (ntnl l1) = true ->
  let su := file_tail (fkeep sb []) (spath_f (ntnl l1) [] []) in
  exists u, oob (U32_MAX_P < nlen (ser u)) (parse_file dbg hp hd None CUrlParser STFile (Some b) l) u
            /\ related dbg shs u su /\ spec_base_ok su = true.
Proof.
  intros Eh Hse Hu En1 Esl1 Hh Hw Hok su.
  pose proof (inp_next_usv l c1 l1 Hu En1) as Hu1.
  set (R1 := ntnl l1) in *.
  assert (su = file_tail (fu u_file0) (spath_f R1 [] [])) as ES by (unfold su, fkeep; rewrite Eh; reflexivity).
  assert (spec_base_ok su = true) as HBok.
  { assert (sfile shp u_file0 (c1 :: R1) = Some su) as E.
    { cbn [sfile]. rewrite Esl1. rewrite ES. destruct R1 as [|c2 T2]; [reflexivity|]. cbn [no_sl_head] in Hh.
      apply negb_true_iff in Hh. rewrite Hh. reflexivity. }
    exact (proj1 (sfile_result_ok shp _ su E)). }
  destruct (file_branch_nohost dbg hp hpo shp shs l1 R1 Hu1 Hok eq_refl Hse) as (u & HO & Ru & _).
  exists u. rewrite ES. split; [|split; [exact Ru | rewrite <- ES; exact HBok]].
  unfold parse_file.
  assert (inp_split_first l = (Some c1, l1)) as -> by (unfold inp_split_first; rewrite En1; reflexivity).
  cbv iota beta. rewrite is_sl_model, Esl1.
  assert (match fst (inp_split_first l1) with Some c => is_slash_or_bslash c | None => false end = false) as Hnext.
  { unfold inp_split_first. destruct R1 as [|c2 T2] eqn:ER1.
    - rewrite (inp_next_none l1 ER1). reflexivity.
    - destruct (inp_next_some l1 c2 T2 ER1) as (l2 & En2 & _ & _). rewrite En2. cbn [no_sl_head] in Hh.
      apply negb_true_iff in Hh. exact Hh. }
  destruct (inp_split_first l1) as [nc an]. cbn [fst] in Hnext.
  rewrite Hnext. rewrite swdl_segment_spec. fold R1. rewrite Hw. cbn [negb].
  change 7 with (nlen s_file_css) at 1. rewrite (file_lead_sep dbg hp hpo shp s_file_css l c1 l1 false En1 Esl1).
  change (nlen s_file_css) with 7. exact HO.
Qed.

End ModelFileOne.

(* recogniser on the Standard's side; R = the text from the separator on.  The base is a file URL; the text starts
   with exactly one '/' '\'; the path loop on the text R1 behind it, started on the empty list with has_host = false,
   is inside fpath_ok and the collapse of leading slashes leaves its list alone (fp_ok false R1 R1); and
     (a) R1 does not start with a Windows drive letter, the base has a host (true of every parse result) and the
         first segment of its path is not a normalized Windows drive letter, or
     (b) R1 starts with a Windows drive letter and the host of the base is the empty host *)
Definition first_not_nwdl (P : list (list N)) : bool :=
  match P with p0 :: _ => negb (is_normalized_windows_drive_letter p0) | [] => false end.
Definition host_is_empty (sb : spec_url) : bool := match su_host sb with Some SEmpty => true | _ => false end.

Definition file_one_ok (sb : spec_url) (R : list N) : bool :=
  negb (has_opaque_path sb) && list_eqb (su_scheme sb) str_file
  && match R with
     | c1 :: R1 =>
         is_sl c1 && no_sl_head R1 && fp_ok false R1 R1
         && (if starts_with_windows_drive_letter R1 then host_is_empty sb
             else opt_is_some (su_host sb) && first_not_nwdl (Whatwg.path_segments sb))
     | [] => false
     end.

Definition in_class_file_rel_one (sb : spec_url) (input : list N) : bool := file_one_ok sb (spec_clean input).
Definition in_class_file_same_one (sb : spec_url) (input : list N) : bool :=
  match spec_scheme (spec_clean input) with
  | Some (sch, R) => list_eqb sch str_file && file_one_ok sb R
  | None => false
  end.

Lemma one_init_nil sb R1 :
  (if starts_with_windows_drive_letter R1 then host_is_empty sb
   else opt_is_some (su_host sb) && first_not_nwdl (Whatwg.path_segments sb)) = true -> one_init sb R1 = [].
Proof.
  unfold one_init, first_not_nwdl. destruct (Whatwg.path_segments sb) as [|p0 Pr]; [reflexivity|].
  destruct (starts_with_windows_drive_letter R1); [reflexivity|]. intros H. apply andb_true_iff in H. destruct H as [_ H].
  apply negb_true_iff in H. rewrite H. reflexivity.
Qed.

(* assembling a class theorem from the two sides *)
Lemma agree_assemble dbg shs (m : pres url) s su u : s = BDone su ->
  oob (U32_MAX_P < nlen (ser u)) m u -> related dbg shs u su -> spec_base_ok su = true -> base_shape_ok su = true ->
  agree_good dbg shs m s /\ (forall su' u', s = BDone su' -> m = POk u' -> full_base dbg shs u' su').
Proof.
  intros HS HO Ru Hbo Hshape.
  assert (agree_good dbg shs m s) as G.
  { rewrite HS. apply agree_good_intro; [|intros su' E; inversion E; subst su'; exact Hbo].
    exact (oob_agree dbg shs _ u _ HO Ru). }
  split; [exact G|]. intros su' u' HS' HM. rewrite HS' in G. rewrite HS in HS'. inversion HS'; subst su'.
  split; [exact (agree_good_chain dbg shs _ su u' G HM) | exact Hshape].
Qed.

Section OneClass.
Variable dbg : bool.
Variable hp hpo : list N -> result host.
Variable hd : host -> list N.
Variable shp : bool -> list N -> option spec_host.
Variable shs : spec_host -> list N.
Hypothesis Hse : shs SEmpty = [].

(* the model from parse_file on, for the text l from the separator on *)
Lemma file_one_model b sb l : related dbg shs b sb -> spec_base_ok sb = true -> usv_list l ->
  file_one_ok sb (ntnl l) = true ->
  exists c1 R1, ntnl l = c1 :: R1 /\ is_sl c1 = true /\ no_sl_head R1 = true
    /\ has_opaque_path sb = false /\ list_eqb (su_scheme sb) str_file = true /\ one_init sb R1 = []
    /\ let su := file_tail (fkeep sb []) (spath_f R1 [] []) in
       exists u, oob (U32_MAX_P < nlen (ser u)) (parse_file dbg hp hd None CUrlParser STFile (Some b) l) u
                 /\ related dbg shs u su /\ spec_base_ok su = true.
Proof.
  intros R Hbok Hu Hc. unfold file_one_ok in Hc.
  apply andb_true_iff in Hbok. destruct Hbok as [_ HnsP].
  apply andb_true_iff in Hc. destruct Hc as [Hc Hok]. apply andb_true_iff in Hc. destruct Hc as [Hop Hf].
  apply negb_true_iff in Hop. pose proof Hf as Hsf. apply list_eqb_spec in Hsf.
  destruct (ntnl l) as [|c1 R1] eqn:El; [discriminate Hok|].
  apply andb_true_iff in Hok. destruct Hok as [Hok Hbase]. apply andb_true_iff in Hok. destruct Hok as [Hok Hfp].
  apply andb_true_iff in Hok. destruct Hok as [Esl1 Hh].
  exists c1, R1. split; [reflexivity|]. split; [exact Esl1|]. split; [exact Hh|]. split; [exact Hop|]. split; [exact Hf|].
  split; [exact (one_init_nil sb R1 Hbase)|].
  destruct (inp_next_some l c1 R1 El) as (l1 & En1 & Hl1 & _).
  rewrite <- Hl1 in Hh, Hfp, Hbase |- *.
  destruct (starts_with_windows_drive_letter (ntnl l1)) eqn:Hw.
  - unfold host_is_empty in Hbase. destruct (su_host sb) as [[| | | |]|] eqn:Eh; try discriminate Hbase.
    exact (parse_file_one_drive dbg hp hpo hd shp shs b sb l c1 l1 Eh Hse Hu En1 Esl1 Hh Hw Hfp).
  - apply andb_true_iff in Hbase. destruct Hbase as [Hhost Hfirst].
    destruct (su_host sb) as [sh|] eqn:Eh; [|discriminate Hhost].
    unfold first_not_nwdl in Hfirst. destruct (Whatwg.path_segments sb) as [|p0 Pr] eqn:EP; [discriminate Hfirst|].
    apply negb_true_iff in Hfirst. cbn [forallb] in HnsP. apply andb_true_iff in HnsP. destruct HnsP as [Hns0 _].
    exact (parse_file_one_keep dbg hp hpo hd shp shs b sb sh l c1 l1 p0 Pr R Hop Hsf Eh EP Hns0 Hfirst Hu En1 Esl1 Hh Hw Hfp).
Qed.

Lemma one_result_shape sb P r : base_shape_ok (file_tail (fkeep sb P) r) = true.
Proof. apply file_tail_shape_ok. reflexivity. Qed.

(* the scheme-less reference "/x" *)
Theorem class_file_rel_one input b sb : usv_list input -> related dbg shs b sb ->
  spec_base_ok sb = true -> in_class_file_rel_one sb input = true ->
  agree_good dbg shs (parse_url dbg hp hpo hd None (Some b) input) (spec_basic_url_parse shp input (Some sb))
  /\ (forall su u, spec_basic_url_parse shp input (Some sb) = BDone su -> parse_url dbg hp hpo hd None (Some b) input = POk u ->
        full_base dbg shs u su).
Proof.
  intros Hu R Hbok Hc. unfold in_class_file_rel_one in Hc.
  rewrite spec_clean_is_ntnl_trim in Hc. set (l := input_new_trim_c0 input) in *.
  assert (usv_list l) as Hul by exact (usv_trim input Hu).
  destruct (file_one_model b sb l R Hbok Hul Hc) as (c1 & R1 & El & Esl1 & Hh & Hop & Hf & Hin0 & u & HO & Ru & Hbo).
  assert (spec_basic_url_parse shp input (Some sb) = BDone (file_tail (fkeep sb []) (spath_f R1 [] []))) as HS.
  { rewrite <- Hin0. apply (spec_file_rel_one shp sb input c1 R1); try assumption.
    rewrite spec_clean_is_ntnl_trim. exact El. }
  assert (parse_url dbg hp hpo hd None (Some b) input = parse_file dbg hp hd None CUrlParser STFile (Some b) l) as Epu.
  { assert ((c1 =? 35) = false) as E35 by (unfold is_sl in Esl1; lia).
    assert (scheme_type_of (b_scheme b) = STFile) as Hst.
    { rewrite (rel_sch _ _ _ _ R). apply list_eqb_spec in Hf. rewrite Hf. reflexivity. }
    exact (parse_url_file_rel dbg hp hpo hd b input c1 R1 (related_not_cbb dbg shs b sb R Hop) Hst El
             (is_sl_scheme_none c1 R1 Esl1) E35). }
  rewrite Epu. exact (agree_assemble dbg shs _ _ _ u HS HO Ru Hbo (one_result_shape sb [] _)).
Qed.

(* "file:" + the reference: "file:/x" *)
Theorem class_file_same_one input b sb : usv_list input -> related dbg shs b sb ->
  spec_base_ok sb = true -> in_class_file_same_one sb input = true ->
  agree_good dbg shs (parse_url dbg hp hpo hd None (Some b) input) (spec_basic_url_parse shp input (Some sb))
  /\ (forall su u, spec_basic_url_parse shp input (Some sb) = BDone su -> parse_url dbg hp hpo hd None (Some b) input = POk u ->
        full_base dbg shs u su).
Proof.
  intros Hu R Hbok Hc. unfold in_class_file_same_one in Hc.
  destruct (spec_scheme (spec_clean input)) as [[sch R0]|] eqn:Es; [|discriminate Hc].
  apply andb_true_iff in Hc. destruct Hc as [Hsch Hc]. apply list_eqb_spec in Hsch. subst sch.
  destruct (parse_url_file_scheme dbg hp hpo hd (Some b) input R0 Hu Es) as (rem & Hur & Hrem & Epu).
  rewrite <- Hrem in Hc.
  destruct (file_one_model b sb rem R Hbok Hur Hc) as (c1 & R1 & El & Esl1 & Hh & Hop & Hf & Hin0 & u & HO & Ru & Hbo).
  rewrite (rel_sch _ _ _ _ R), (proj1 (list_eqb_spec _ _) Hf) in Epu. change (list_eqb str_file s_file) with true in Epu.
  assert (spec_basic_url_parse shp input (Some sb) = BDone (file_tail (fkeep sb []) (spath_f R1 [] []))) as HS.
  { rewrite <- Hin0. apply (spec_file_same_one shp sb input c1 R1); try assumption.
    rewrite Es, <- Hrem, El. reflexivity. }
  rewrite Epu. exact (agree_assemble dbg shs _ _ _ u HS HO Ru Hbo (one_result_shape sb [] _)).
Qed.

End OneClass.

(* no hypothesis on the host functions beyond "the Standard's serializer gives the empty string for the empty host"
   (no host is parsed); instance for the parser model with the host model plugged in, bases in full_base *)
Theorem class_file_rel_one_model dbg idna : forall input b sb,
  usv_list input -> full_base dbg spec_host_serializer b sb -> in_class_file_rel_one sb input = true ->
  agree_good dbg spec_host_serializer
    (parse_url dbg (host_parse idna) host_parse_opaque host_display None (Some b) input)
    (spec_basic_url_parse (spec_host_parser idna) input (Some sb))
  /\ (forall su u, spec_basic_url_parse (spec_host_parser idna) input (Some sb) = BDone su ->
        parse_url dbg (host_parse idna) host_parse_opaque host_display None (Some b) input = POk u ->
        full_base dbg spec_host_serializer u su).
Proof.
  intros input b sb Hu [[R Hok] _] Hc. exact (class_file_rel_one dbg _ _ _ _ _ eq_refl input b sb Hu R Hok Hc).
Qed.

Theorem class_file_same_one_model dbg idna : forall input b sb,
  usv_list input -> full_base dbg spec_host_serializer b sb -> in_class_file_same_one sb input = true ->
  agree_good dbg spec_host_serializer
    (parse_url dbg (host_parse idna) host_parse_opaque host_display None (Some b) input)
    (spec_basic_url_parse (spec_host_parser idna) input (Some sb))
  /\ (forall su u, spec_basic_url_parse (spec_host_parser idna) input (Some sb) = BDone su ->
        parse_url dbg (host_parse idna) host_parse_opaque host_display None (Some b) input = POk u ->
        full_base dbg spec_host_serializer u su).
Proof.
  intros input b sb Hu [[R Hok] _] Hc. exact (class_file_same_one dbg _ _ _ _ _ eq_refl input b sb Hu R Hok Hc).
Qed.

(* non-vacuity, arm (a): against the parse result of file://h/tmp/x the references  /y ,  \a/../b?q#f ,  /./C:/z ,
   file:/y  are in the classes (in class 1 of known_c01_v3, outside known_c01: Proofs/C01_EqFileCover3.v); both sides give file://h/y,
   file://h/b?q#f, file://h/C:/z, file://h/y with the same ten API strings *)
Example class_file_one_nonvacuous :
  let idna := id_idna in
  let P base i := parse_url true (host_parse idna) host_parse_opaque host_display None base i in
  let S sbase i := spec_basic_url_parse (spec_host_parser idna) i sbase in
  match P None file_base_text, S None file_base_text with
  | POk b, BDone sb =>
      let ok (cls : spec_url -> list N -> bool) i h :=
        cls sb i = true /\ known_c01_v3 (Some b) i = 1
        /\ match P (Some b) i, S (Some sb) i with
           | POk u, BDone su => q_href u = h /\ api_of_model true u = Some (spec_api_list spec_host_serializer su)
           | _, _ => False end in
      ok in_class_file_rel_one [47;121] [102;105;108;101;58;47;47;104;47;121]
      /\ ok in_class_file_rel_one [92;97;47;46;46;47;98;63;113;35;102] [102;105;108;101;58;47;47;104;47;98;63;113;35;102]
      /\ ok in_class_file_rel_one [47;46;47;67;58;47;122] [102;105;108;101;58;47;47;104;47;67;58;47;122]
      /\ ok in_class_file_same_one [102;105;108;101;58;47;121] [102;105;108;101;58;47;47;104;47;121]
  | _, _ => False
  end.
Proof. vm_compute. repeat split. Qed.

(* non-vacuity, arm (b): against the parse result of file:///tmp/x (empty host) the references  /C:/y ,  /c|\z?q ,
   fIle:/C:/y  are in the classes; both sides give file:///C:/y, file:///c:/z?q, file:///C:/y *)
Example class_file_one_drive_nonvacuous :
  let idna := id_idna in
  let P base i := parse_url true (host_parse idna) host_parse_opaque host_display None base i in
  let S sbase i := spec_basic_url_parse (spec_host_parser idna) i sbase in
  let bt := [102;105;108;101;58;47;47;47;116;109;112;47;120] in
  match P None bt, S None bt with
  | POk b, BDone sb =>
      let ok (cls : spec_url -> list N -> bool) i h :=
        cls sb i = true /\ known_c01_v3 (Some b) i = 1
        /\ match P (Some b) i, S (Some sb) i with
           | POk u, BDone su => q_href u = h /\ api_of_model true u = Some (spec_api_list spec_host_serializer su)
           | _, _ => False end in
      ok in_class_file_rel_one [47;67;58;47;121] [102;105;108;101;58;47;47;47;67;58;47;121]
      /\ ok in_class_file_rel_one [47;99;124;92;122;63;113] [102;105;108;101;58;47;47;47;99;58;47;122;63;113]
      /\ ok in_class_file_same_one [102;73;108;101;58;47;67;58;47;121] [102;105;108;101;58;47;47;47;67;58;47;121]
  | _, _ => False
  end.
Proof. vm_compute. repeat split. Qed.

(* the exclusion of arm (b) "the host of the base is the empty host" is necessary (F-C01-1, in
   url/tests/expected_failures.txt): against the parse result of file://h/tmp/x the reference  /C:/y  gives
   file://h/C:/y in the Standard and file:///C:/y in parser.rs (the host of the base is dropped in front of a drive
   letter).  Replay on the crate: Url::parse("file://h/tmp/x").unwrap().join("/C:/y") *)
Example class_file_one_exclusion_necessary :
  let idna := id_idna in
  let P base i := parse_url true (host_parse idna) host_parse_opaque host_display None base i in
  let S sbase i := spec_basic_url_parse (spec_host_parser idna) i sbase in
  let i := [47;67;58;47;121] in
  match P None file_base_text, S None file_base_text with
  | POk b, BDone sb =>
      in_class_file_rel_one sb i = false /\ known_c01_v3 (Some b) i = 1
      /\ match P (Some b) i, S (Some sb) i with
         | POk u, BDone su => q_href u = [102;105;108;101;58;47;47;47;67;58;47;121] /\ get_href spec_host_serializer su = [102;105;108;101;58;47;47;104;47;67;58;47;121]
         | _, _ => False end
  | _, _ => False
  end.
Proof. vm_compute. repeat split. Qed.

(* the drive-letter dispatch of the file state (no leading separator) *)
Lemma swdl_head c t : starts_with_windows_drive_letter (c :: t) = true ->
  is_sl c = false /\ (c =? 63) = false /\ (c =? 35) = false.
Proof.
  unfold starts_with_windows_drive_letter. destruct t as [|b rest]; [discriminate|].
  cbn [is_windows_drive_letter]. intros H. apply andb_true_iff in H. destruct H as [H _].
  apply andb_true_iff in H. destruct H as [H _]. unfold is_alpha, is_upper, is_lower in H. unfold is_sl. lia.
Qed.

Section SpecFileDrive.
Variable shp : bool -> list N -> option spec_host.
Variable inp : list N.
Variable sb : spec_url.
Hypothesis Hf : list_eqb (su_scheme sb) str_file = true.

Notation RunsB := (Runs shp inp (Some sb)).

Theorem runs_file_drive_g pre u c t : inp = pre ++ c :: t -> (u = empty_url \/ u = u_file0) ->
  starts_with_windows_drive_letter (c :: t) = true ->
  RunsB (at_pos StFile pre [] false false false u) (BDone (file_tail (fkeep sb []) (spath_f (c :: t) [] []))).
Proof.
  intros Hin Hu Hw. destruct (swdl_head c t Hw) as (Esl & E63 & E35).
  assert (c :: t <> []) as Hne by discriminate.
  unfold is_sl in Esl. apply orb_false_iff in Esl. destruct Esl as [E47 E92].
  eapply (runs_step_stay shp inp (Some sb) StFile pre (c :: t)) with (st' := StPath) (buf' := [])
    (u' := fkeep sb []); [exact Hin | exact Hne | |].
  - rewrite (step_unfold shp inp (Some sb) _ pre (c :: t)) by exact Hin. cbn zeta. cbn [hd_error tl].
    unfold st_file, base_is_file. rewrite Hf. cbn [cis]. rewrite E47, E92, E63, E35. cbn [orb].
    rewrite Hw. cbn [negb]. cbn [m_url at_pos]. destruct Hu as [->| ->]; reflexivity.
  - exact (runs_path_f shp inp (Some sb) (c :: t) pre [] false false false (fkeep sb []) [] Hin eq_refl eq_refl).
Qed.

End SpecFileDrive.

(* the scheme-less reference ("C|/y": with ':' the letter is a scheme) *)
Theorem spec_file_rel_drive shp sb input c t :
  spec_clean input = c :: t -> spec_scheme (c :: t) = None -> starts_with_windows_drive_letter (c :: t) = true ->
  has_opaque_path sb = false -> list_eqb (su_scheme sb) str_file = true ->
  spec_basic_url_parse shp input (Some sb) = BDone (file_tail (fkeep sb []) (spath_f (c :: t) [] [])).
Proof.
  intros Ecl Hs Hw Hop Hf. set (inp := spec_clean input) in *. rewrite <- Ecl in Hs.
  apply spec_parse_of_runs. fold inp. apply runs_no_scheme; [exact Hs|].
  eapply (runs_step_stay shp inp (Some sb) StNoScheme [] inp) with (st' := StFile) (buf' := []);
    [reflexivity | rewrite Ecl; discriminate | |].
  { rewrite (step_unfold shp inp (Some sb) _ [] inp) by reflexivity. cbn zeta.
    unfold st_no_scheme. rewrite Hop, Hf. cbn [andb negb]. reflexivity. }
  exact (runs_file_drive_g shp inp sb Hf [] empty_url c t Ecl (or_introl eq_refl) Hw).
Qed.

(* "file:" + the text ("file:C:/y", "file:C|/y") *)
Theorem spec_file_same_drive shp sb input c t :
  spec_scheme (spec_clean input) = Some (str_file, c :: t) -> starts_with_windows_drive_letter (c :: t) = true ->
  list_eqb (su_scheme sb) str_file = true ->
  spec_basic_url_parse shp input (Some sb) = BDone (file_tail (fkeep sb []) (spath_f (c :: t) [] [])).
Proof.
  intros Hs Hw Hf. set (inp := spec_clean input) in *.
  apply spec_parse_of_runs. fold inp.
  destruct (runs_scheme shp inp (Some sb) str_file (c :: t)
              (BDone (file_tail (fkeep sb []) (spath_f (c :: t) [] []))) Hs) as (pre & Hin & K).
  apply K. clear K.
  apply (runs_scheme_colon_file shp inp (Some sb) pre (c :: t) _ Hin).
  assert (inp = (pre ++ [58]) ++ c :: t) as Hin1 by (rewrite Hin, <- app_assoc; reflexivity).
  exact (runs_file_drive_g shp inp sb Hf (pre ++ [58]) u_file0 c t Hin1 (or_intror eq_refl) Hw).
Qed.

Section ModelFileDrive.
Variable dbg : bool.
Variable hp hpo : list N -> result host.
Variable hd : host -> list N.
Variable shp : bool -> list N -> option spec_host.
Variable shs : spec_host -> list N.

(* parser.rs: "file:///" and the path parser on the whole text - the host of the base is dropped *)
Theorem parse_file_drive b sb l c t :
  su_host sb = Some SEmpty -> shs SEmpty = [] -> usv_list l -> ntnl l = c :: t ->
  starts_with_windows_drive_letter (c :: t) = true -> fp_ok false (c :: t) (c :: t) = true ->
  let su := file_tail (fkeep sb []) (spath_f (c :: t) [] []) in
  exists u, oob (U32_MAX_P < nlen (ser u)) (parse_file dbg hp hd None CUrlParser STFile (Some b) l) u
            /\ related dbg shs u su /\ spec_base_ok su = true.
Proof.
  intros Eh Hse Hu El Hw Hok su. destruct (swdl_head c t Hw) as (Esl & E63 & E35).
  assert (su = file_tail (fu u_file0) (spath_f (c :: t) [] [])) as ES by (unfold su, fkeep; rewrite Eh; reflexivity).
  assert (spec_base_ok su = true) as HBok.
  { assert (sfile shp u_file0 (c :: t) = Some su) as E by (cbn [sfile]; rewrite Esl, ES; reflexivity).
    exact (proj1 (sfile_result_ok shp _ su E)). }
  rewrite <- El in Hok.
  destruct (file_branch_nohost dbg hp hpo shp shs l (ntnl l) Hu Hok eq_refl Hse) as (u & HO & Ru & _).
  rewrite El in Ru.
  exists u. rewrite ES. split; [|split; [exact Ru | rewrite <- ES; exact HBok]].
  destruct (inp_next_some l c t El) as (l1 & En1 & _ & _).
  unfold parse_file, inp_split_first. rewrite En1. cbv iota beta.
  rewrite is_sl_model, Esl, E63, E35. rewrite swdl_segment_spec, El, Hw. cbn [negb]. exact HO.
Qed.

End ModelFileDrive.

Definition file_drive_ok (sb : spec_url) (R : list N) : bool :=
  negb (has_opaque_path sb) && list_eqb (su_scheme sb) str_file && host_is_empty sb
  && starts_with_windows_drive_letter R && fp_ok false R R.

Definition in_class_file_rel_drive (sb : spec_url) (input : list N) : bool :=
  match spec_scheme (spec_clean input) with None => file_drive_ok sb (spec_clean input) | Some _ => false end.
Definition in_class_file_same_drive (sb : spec_url) (input : list N) : bool :=
  match spec_scheme (spec_clean input) with
  | Some (sch, R) => list_eqb sch str_file && file_drive_ok sb R
  | None => false
  end.

Section DriveClass.
Variable dbg : bool.
Variable hp hpo : list N -> result host.
Variable hd : host -> list N.
Variable shp : bool -> list N -> option spec_host.
Variable shs : spec_host -> list N.
Hypothesis Hse : shs SEmpty = [].

Lemma file_drive_ok_facts sb R : file_drive_ok sb R = true ->
  has_opaque_path sb = false /\ list_eqb (su_scheme sb) str_file = true /\ su_host sb = Some SEmpty
  /\ starts_with_windows_drive_letter R = true /\ fp_ok false R R = true.
Proof.
  unfold file_drive_ok. intros H. apply andb_true_iff in H. destruct H as [H H5]. apply andb_true_iff in H. destruct H as [H H4].
  apply andb_true_iff in H. destruct H as [H H3]. apply andb_true_iff in H. destruct H as [H1 H2].
  apply negb_true_iff in H1. repeat split; try assumption.
  unfold host_is_empty in H3. destruct (su_host sb) as [[| | | |]|]; try discriminate H3. reflexivity.
Qed.

Theorem class_file_rel_drive input b sb : usv_list input -> related dbg shs b sb ->
  in_class_file_rel_drive sb input = true ->
  agree_good dbg shs (parse_url dbg hp hpo hd None (Some b) input) (spec_basic_url_parse shp input (Some sb))
  /\ (forall su u, spec_basic_url_parse shp input (Some sb) = BDone su -> parse_url dbg hp hpo hd None (Some b) input = POk u ->
        full_base dbg shs u su).
Proof.
  intros Hu R Hc. unfold in_class_file_rel_drive in Hc.
  destruct (spec_scheme (spec_clean input)) as [?|] eqn:Es; [discriminate Hc|].
  destruct (file_drive_ok_facts sb _ Hc) as (Hop & Hf & Eh & Hw & Hok).
  destruct (spec_clean input) as [|c t] eqn:Ecl; [discriminate Hw|].
  destruct (swdl_head c t Hw) as (Esl & E63 & E35).
  pose proof (spec_file_rel_drive shp sb input c t Ecl Es Hw Hop Hf) as HS.
  rewrite spec_clean_is_ntnl_trim in Ecl. set (l := input_new_trim_c0 input) in *.
  assert (usv_list l) as Hul by exact (usv_trim input Hu).
  destruct (parse_file_drive dbg hp hpo hd shp shs b sb l c t Eh Hse Hul Ecl Hw Hok) as (u & HO & Ru & Hbo).
  assert (parse_url dbg hp hpo hd None (Some b) input = parse_file dbg hp hd None CUrlParser STFile (Some b) l) as Epu.
  { assert (scheme_type_of (b_scheme b) = STFile) as Hst.
    { rewrite (rel_sch _ _ _ _ R). apply list_eqb_spec in Hf. rewrite Hf. reflexivity. }
    exact (parse_url_file_rel dbg hp hpo hd b input c t (related_not_cbb dbg shs b sb R Hop) Hst Ecl Es E35). }
  rewrite Epu. exact (agree_assemble dbg shs _ _ _ u HS HO Ru Hbo (one_result_shape sb [] _)).
Qed.

Theorem class_file_same_drive input b sb : usv_list input -> related dbg shs b sb ->
  in_class_file_same_drive sb input = true ->
  agree_good dbg shs (parse_url dbg hp hpo hd None (Some b) input) (spec_basic_url_parse shp input (Some sb))
  /\ (forall su u, spec_basic_url_parse shp input (Some sb) = BDone su -> parse_url dbg hp hpo hd None (Some b) input = POk u ->
        full_base dbg shs u su).
Proof.
  intros Hu R Hc. unfold in_class_file_same_drive in Hc.
  destruct (spec_scheme (spec_clean input)) as [[sch R0]|] eqn:Es; [|discriminate Hc].
  apply andb_true_iff in Hc. destruct Hc as [Hsch Hc]. apply list_eqb_spec in Hsch. subst sch.
  destruct (file_drive_ok_facts sb _ Hc) as (Hop & Hf & Eh & Hw & Hok).
  destruct R0 as [|c t]; [discriminate Hw|].
  pose proof (spec_file_same_drive shp sb input c t Es Hw Hf) as HS.
  destruct (parse_url_file_scheme_base dbg shs hp hpo hd b sb input _ Hu Es R (proj1 (list_eqb_spec _ _) Hf))
    as (rem & Hur & Hrem & Epu).
  destruct (parse_file_drive dbg hp hpo hd shp shs b sb rem c t Eh Hse Hur Hrem Hw Hok) as (u & HO & Ru & Hbo).
  rewrite Epu. exact (agree_assemble dbg shs _ _ _ u HS HO Ru Hbo (one_result_shape sb [] _)).
Qed.

End DriveClass.

Theorem class_file_rel_drive_model dbg idna : forall input b sb,
  usv_list input -> full_base dbg spec_host_serializer b sb -> in_class_file_rel_drive sb input = true ->
  agree_good dbg spec_host_serializer
    (parse_url dbg (host_parse idna) host_parse_opaque host_display None (Some b) input)
    (spec_basic_url_parse (spec_host_parser idna) input (Some sb))
  /\ (forall su u, spec_basic_url_parse (spec_host_parser idna) input (Some sb) = BDone su ->
        parse_url dbg (host_parse idna) host_parse_opaque host_display None (Some b) input = POk u ->
        full_base dbg spec_host_serializer u su).
Proof.
  intros input b sb Hu [[R _] _] Hc. exact (class_file_rel_drive dbg _ _ _ _ _ eq_refl input b sb Hu R Hc).
Qed.

Theorem class_file_same_drive_model dbg idna : forall input b sb,
  usv_list input -> full_base dbg spec_host_serializer b sb -> in_class_file_same_drive sb input = true ->
  agree_good dbg spec_host_serializer
    (parse_url dbg (host_parse idna) host_parse_opaque host_display None (Some b) input)
    (spec_basic_url_parse (spec_host_parser idna) input (Some sb))
  /\ (forall su u, spec_basic_url_parse (spec_host_parser idna) input (Some sb) = BDone su ->
        parse_url dbg (host_parse idna) host_parse_opaque host_display None (Some b) input = POk u ->
        full_base dbg spec_host_serializer u su).
Proof.
  intros input b sb Hu [[R _] _] Hc. exact (class_file_same_drive dbg _ _ _ _ _ eq_refl input b sb Hu R Hc).
Qed.

(* non-vacuity: against the parse result of file:///tmp/x (empty host) the references  C|/y  (scheme-less),
   file:C:/y ,  fIle:c|\z?q  are in the classes (and in class 1 of Known_C01); both sides give file:///C:/y,
   file:///C:/y, file:///c:/z?q *)
Example class_file_drive_nonvacuous :
  let idna := id_idna in
  let P base i := parse_url true (host_parse idna) host_parse_opaque host_display None base i in
  let S sbase i := spec_basic_url_parse (spec_host_parser idna) i sbase in
  let bt := [102;105;108;101;58;47;47;47;116;109;112;47;120] in
  match P None bt, S None bt with
  | POk b, BDone sb =>
      let ok (cls : spec_url -> list N -> bool) i h :=
        cls sb i = true /\ known_c01_v3 (Some b) i = 1
        /\ match P (Some b) i, S (Some sb) i with
           | POk u, BDone su => q_href u = h /\ api_of_model true u = Some (spec_api_list spec_host_serializer su)
           | _, _ => False end in
      ok in_class_file_rel_drive [67;124;47;121] [102;105;108;101;58;47;47;47;67;58;47;121]
      /\ ok in_class_file_same_drive [102;105;108;101;58;67;58;47;121] [102;105;108;101;58;47;47;47;67;58;47;121]
      /\ ok in_class_file_same_drive [102;73;108;101;58;99;124;92;122;63;113] [102;105;108;101;58;47;47;47;99;58;47;122;63;113]
  | _, _ => False
  end.
Proof. vm_compute. repeat split. Qed.

(* the condition "the host of the base is the empty host" is necessary (F-C01-1 family): against the parse result of
   file://h/tmp/x the reference  file:C:/y  gives file://h/C:/y in the Standard and file:///C:/y in parser.rs.
   Replay on the crate: Url::parse("file://h/tmp/x").unwrap().join("file:C:/y") *)
Example class_file_drive_exclusion_necessary :
  let idna := id_idna in
  let P base i := parse_url true (host_parse idna) host_parse_opaque host_display None base i in
  let S sbase i := spec_basic_url_parse (spec_host_parser idna) i sbase in
  let i := [102;105;108;101;58;67;58;47;121] in
  match P None file_base_text, S None file_base_text with
  | POk b, BDone sb =>
      in_class_file_same_drive sb i = false /\ known_c01_v3 (Some b) i = 1
      /\ match P (Some b) i, S (Some sb) i with
         | POk u, BDone su => q_href u = [102;105;108;101;58;47;47;47;67;58;47;121] /\ get_href spec_host_serializer su = [102;105;108;101;58;47;47;104;47;67;58;47;121]
         | _, _ => False end
  | _, _ => False
  end.
Proof. vm_compute. repeat split. Qed.

(* ".." behind a sole normalized drive letter is outside class 1 of Known_C01.
   No base: file:C:/../x and file:/c|/../../y are outside Known_C01 (kf_fin_ok with kf_sole), in the file
   class, and both sides give file:///C:/x and file:///c:/y; file:///a/C:/../x (the drive letter is not the sole
   segment) is in class 1 and the sides differ there (F-C01-5: file:///a/C:/x against the Standard's file:///a/x) *)
Example known_sole_drive :
  let idna := id_idna in
  let P i := parse_url true (host_parse idna) host_parse_opaque host_display None None i in
  let S i := spec_basic_url_parse (spec_host_parser idna) i None in
  let ok i h := known_c01 None i = 0 /\ in_class_file i = true
                /\ match P i, S i with
                   | POk u, BDone su => q_href u = h /\ api_of_model true u = Some (spec_api_list spec_host_serializer su)
                   | _, _ => False end in
  ok [102;105;108;101;58;67;58;47;46;46;47;120] [102;105;108;101;58;47;47;47;67;58;47;120] /\ ok [102;105;108;101;58;47;99;124;47;46;46;47;46;46;47;121] [102;105;108;101;58;47;47;47;99;58;47;121]
  /\ known_c01 None [102;105;108;101;58;47;47;47;97;47;67;58;47;46;46;47;120] = 1
  /\ match P [102;105;108;101;58;47;47;47;97;47;67;58;47;46;46;47;120], S [102;105;108;101;58;47;47;47;97;47;67;58;47;46;46;47;120] with
     | POk u, BDone su => q_href u = [102;105;108;101;58;47;47;47;97;47;67;58;47;120] /\ get_href spec_host_serializer su = [102;105;108;101;58;47;47;47;97;47;120]
     | _, _ => False end.
Proof. vm_compute. repeat split. Qed.

(* one leading separator, the drive letter of the base carried over *)
(* the first segment p0 of the base path is a normalized Windows drive letter and the text R1 behind the separator
   does not start with one: the Standard hands [p0] to the path state and keeps the host of the base; parser.rs
   starts from "file:///" + p0 and drops the host - the same URL when the host of the base is the empty host *)
Section ModelCarry.
Variable dbg : bool.
Variable hp hpo : list N -> result host.
Variable hd : host -> list N.
Variable shp : bool -> list N -> option spec_host.
Variable shs : spec_host -> list N.

Notation PP hh ps s l := (parse_path dbg CUrlParser STFile hh ps s l).
Notation loop := (parse_path_loop dbg CUrlParser STFile).

(* a leading separator behind any serialization: an empty segment is finished, the '/' stays *)
Lemma lead_sep_gen pre ser l : forall c l1 hh, inp_next l = Some (c, l1) -> is_sl c = true ->
  loop (nlen pre) l ser (nlen ser) [] hh = loop (nlen pre) l1 (ser ++ [47]) (nlen (ser ++ [47])) [] hh.
Proof.
  induction l as [|c0 r IH]; intros c l1 hh En Hs; [discriminate En|].
  destruct (is_tnl c0) eqn:Et.
  - rewrite inp_next_tnl in En by exact Et. rewrite (loop_tnl dbg STFile _ c0 r _ _ [] hh Et). cbn [push_pending].
    exact (IH c l1 hh En Hs).
  - rewrite inp_next_cons in En by exact Et. inversion En; subst c0 l1.
    rewrite (loop_sep dbg STFile _ c r _ _ [] hh Et) by (rewrite sep_file; exact Hs). cbn [push_pending].
    unfold finish_segment.
    assert (slice_o (ser ++ [47]) (nlen ser) (nlen (ser ++ [47]) - 1) = Some []) as ->.
    { rewrite nlen_app. replace (nlen ser + nlen [47] - 1) with (nlen ser + nlen (@nil N)) by (unfold nlen; cbn [length]; lia).
      exact (slice_mid ser [] [47]). }
    cbn [of_option pbind is_double_dot is_single_dot st_is_file andb].
    replace (is_wdl []) with false by reflexivity. rewrite andb_false_r. cbn [pbind]. reflexivity.
Qed.

(* loop_from_segments_f (Proofs/C01_EqFileBase.v) for any has_host flag *)
Lemma loop_from_segments_g pre r P0 hh : usv_list r -> forallb no_slash P0 = true ->
  fpath_ok hh (ntnl r) P0 [] = true ->
  let P1 := fst (spath_f (ntnl r) P0 []) in
  strip_stable P1 = true ->
  PP hh (nlen pre) (Bs pre P0) r = POk (pre ++ flat P1, hh, cbb_rest r)
  /\ snd (spath_f (ntnl r) P0 []) = ntnl (cbb_rest r)
  /\ forallb no_slash P1 = true.
Proof.
  intros Hur Hns Hok P1 Hst.
  assert (pend_ok []) as Hp0 by (split; [constructor | reflexivity]).
  destruct (loop_exact_f pre dbg r P0 [] [] hh Hur Hp0 Hns eq_refl Hok) as (segs & last & Hloop & Hfst & Hsnd).
  cbn [app rev utf8_encode flat_map encode] in Hfst, Hsnd.
  rewrite app_nil_r in Hloop.
  assert (forallb no_slash P1 = true) as Hns1 by (unfold P1; apply spath_f_no_slash; [exact Hns | reflexivity]).
  split; [|split; [exact Hsnd | exact Hns1]].
  unfold parse_path. rewrite Hloop. rewrite C01_EqFile.Bs_flat, <- Hfst. fold P1.
  rewrite fixup_flat by exact Hns1. apply strip_f_stable in Hst. rewrite Hst. reflexivity.
Qed.

Lemma nwdl_facts p0 : is_normalized_windows_drive_letter p0 = true -> no_slash p0 = true /\ no_qh p0 = true.
Proof.
  destruct p0 as [|a [|b [|c r]]]; try discriminate. cbn [is_normalized_windows_drive_letter]. intros H.
  apply andb_true_iff in H. destruct H as [Ha Hb]. unfold is_alpha, is_upper, is_lower in Ha.
  unfold no_slash, no_qh. cbn [forallb]. split; lia.
Qed.

Theorem parse_file_one_carry b sb sh l c1 l1 p0 Pr :
  related dbg shs b sb -> has_opaque_path sb = false -> su_scheme sb = str_file -> su_host sb = Some sh -> shs sh = [] ->
  Whatwg.path_segments sb = p0 :: Pr -> is_normalized_windows_drive_letter p0 = true ->
  usv_list l -> inp_next l = Some (c1, l1) -> is_sl c1 = true -> no_sl_head (ntnl l1) = true ->
  starts_with_windows_drive_letter (ntnl l1) = false ->
  fpath_ok false (ntnl l1) [p0] [] = true -> strip_stable (fst (spath_f (ntnl l1) [p0] [])) = true ->
  let su := file_tail (fkeep sb [p0]) (spath_f (ntnl l1) [p0] []) in
  exists u, oob (U32_MAX_P < nlen (ser u)) (parse_file dbg hp hd None CUrlParser STFile (Some b) l) u
            /\ related dbg shs u su /\ spec_base_ok su = true.
Proof.
  intros R Hop Hs Eh Hsh EP Hnw Hu En1 Esl1 Hh Hw Hok Hst su.
  pose proof (inp_next_usv l c1 l1 Hu En1) as Hu1.
  destruct (nwdl_facts p0 Hnw) as [Hns0 Hqh0].
  set (R1 := ntnl l1) in *.
  assert (forallb no_slash [p0] = true) as HnsP0 by (cbn [forallb]; rewrite Hns0; reflexivity).
  destruct (loop_from_segments_g s_file_css l1 [p0] false Hu1 HnsP0 Hok Hst) as (Hpp & Hsnd & Hns1).
  fold R1 in Hpp, Hsnd, Hns1.
  set (P1 := fst (spath_f R1 [p0] [])) in *. set (T := flat P1) in *.
  set (rest := cbb_rest l1) in *. set (q := pqf_q STFile rest). set (f := pqf_f rest).
  assert (usv_list rest) as Hurest by (apply usv_cbb_rest; exact Hu1).
  assert (forallb C06_WFI.no_qh T = true) as Hqh1.
  { apply flat_no_qh. apply spath_f_no_qh; [|reflexivity]. cbn [forallb]. rewrite Hqh0. reflexivity. }
  destruct (rel_valid _ _ _ _ R) as [_ V]. destruct (V Hs) as (Vu & Vp & Vpo).
  assert (su = spec_auth_url str_file [] [] sh None P1 q f) as ES.
  { unfold su. rewrite (file_tail_rel_url sb [p0] R1 rest Hs (rel_valid _ _ _ _ R) Hsnd (cbb_rest_head l1)).
    unfold rel_url, spec_auth_url. rewrite Hs, Vu, Vp, Vpo, Eh. reflexivity. }
  assert (spec_base_ok su = true) as HBok.
  { rewrite ES. unfold spec_base_ok, spec_auth_url. cbn [su_scheme Whatwg.path_segments su_path]. rewrite Hns1. reflexivity. }
  assert (match ntnl rest with [] => True | c :: _ => is_qh c = true end) as Hhead.
  { pose proof (cbb_rest_head l1) as Hh'. fold rest in Hh'. destruct rest as [|d dr]; [exact I|]. destruct Hh' as [Hh1 Hh2].
    rewrite ntnl_cons by exact Hh2. exact Hh1. }
  set (U := auth_url s_file [] [] [] HI_None None T q f).
  assert (ser U = (s_file_css ++ T) ++ qf_text q f) as EU.
  { unfold U, auth_url. cbn [ser cred_text port_suffix is_nil andb]. rewrite !app_nil_r. reflexivity. }
  exists U. split; [|split; [|exact HBok]].
  - unfold parse_file.
    assert (inp_split_first l = (Some c1, l1)) as -> by (unfold inp_split_first; rewrite En1; reflexivity).
    cbv iota beta. rewrite is_sl_model, Esl1.
    assert (match fst (inp_split_first l1) with Some c => is_slash_or_bslash c | None => false end = false) as Hnext.
    { unfold inp_split_first. destruct R1 as [|c2 T2] eqn:ER1.
      - rewrite (inp_next_none l1 ER1). reflexivity.
      - destruct (inp_next_some l1 c2 T2 ER1) as (l2 & En2 & _ & _). rewrite En2. cbn [no_sl_head] in Hh.
        apply negb_true_iff in Hh. exact Hh. }
    destruct (inp_split_first l1) as [nc an]. cbn [fst] in Hnext.
    rewrite Hnext. rewrite swdl_segment_spec. fold R1. rewrite Hw. cbn [negb].
    rewrite (base_first_segment_spec dbg shs b sb p0 Pr R Hop EP Hns0). rewrite is_nwdl_agree, Hnw.
    unfold parse_path. change 7 with (nlen s_file_css).
    rewrite (lead_sep_gen s_file_css (s_file_css ++ [47] ++ p0) l c1 l1 false En1 Esl1).
    assert ((s_file_css ++ [47] ++ p0) ++ [47] = Bs s_file_css [p0]) as ->.
    { unfold Bs, segs_text. cbn [map concat]. rewrite app_nil_r, <- !app_assoc. reflexivity. }
    unfold parse_path in Hpp. rewrite Hpp. cbn [pbind].
    eapply oob_bind.
    { apply (pqf_oob None (U32_MAX_P < nlen (ser U))); [exact Hurest | reflexivity | exact Hhead |].
      fold q f T. intros Hlt. rewrite EU. exact Hlt. }
    fold q f T. right. unfold U, auth_url, file_url. cbn [cred_text port_suffix is_nil andb]. rewrite !app_nil_r.
    change (auth_s0 s_file) with s_file_css. reflexivity.
  - rewrite ES. apply (related_auth_f dbg shs s_file [] [] [] HI_None sh None P1 q f). constructor.
    + reflexivity.
    + reflexivity.
    + symmetry. exact Hsh.
    + reflexivity.
    + reflexivity.
    + reflexivity.
    + intros p Hp. discriminate Hp.
    + exact Hqh1.
    + apply pqf_q_clean_f. exact Hurest.
    + repeat split.
Qed.

End ModelCarry.

(* the class: R = the text from the separator on *)
Definition first_nwdl (P : list (list N)) : bool :=
  match P with p0 :: _ => is_normalized_windows_drive_letter p0 | [] => false end.
Definition first_seg (P : list (list N)) : list (list N) := match P with p0 :: _ => [p0] | [] => [] end.

Definition file_one_carry_ok (sb : spec_url) (R : list N) : bool :=
  negb (has_opaque_path sb) && list_eqb (su_scheme sb) str_file && host_is_empty sb
  && first_nwdl (Whatwg.path_segments sb)
  && match R with
     | c1 :: R1 =>
         is_sl c1 && no_sl_head R1 && negb (starts_with_windows_drive_letter R1)
         && fpath_ok false R1 (first_seg (Whatwg.path_segments sb)) []
         && strip_stable (fst (spath_f R1 (first_seg (Whatwg.path_segments sb)) []))
     | [] => false
     end.

Definition in_class_file_rel_one_carry (sb : spec_url) (input : list N) : bool := file_one_carry_ok sb (spec_clean input).
Definition in_class_file_same_one_carry (sb : spec_url) (input : list N) : bool :=
  match spec_scheme (spec_clean input) with
  | Some (sch, R) => list_eqb sch str_file && file_one_carry_ok sb R
  | None => false
  end.

Section CarryClass.
Variable dbg : bool.
Variable hp hpo : list N -> result host.
Variable hd : host -> list N.
Variable shp : bool -> list N -> option spec_host.
Variable shs : spec_host -> list N.
Hypothesis Hse : shs SEmpty = [].

Lemma file_one_carry_model b sb l : related dbg shs b sb -> usv_list l ->
  file_one_carry_ok sb (ntnl l) = true ->
  exists c1 R1 p0, ntnl l = c1 :: R1 /\ is_sl c1 = true /\ no_sl_head R1 = true
    /\ has_opaque_path sb = false /\ list_eqb (su_scheme sb) str_file = true /\ one_init sb R1 = [p0]
    /\ let su := file_tail (fkeep sb [p0]) (spath_f R1 [p0] []) in
       exists u, oob (U32_MAX_P < nlen (ser u)) (parse_file dbg hp hd None CUrlParser STFile (Some b) l) u
                 /\ related dbg shs u su /\ spec_base_ok su = true.
Proof.
  intros R Hu Hc. unfold file_one_carry_ok in Hc.
  apply andb_true_iff in Hc. destruct Hc as [Hc Hok]. apply andb_true_iff in Hc. destruct Hc as [Hc Hfirst].
  apply andb_true_iff in Hc. destruct Hc as [Hc Hhost]. apply andb_true_iff in Hc. destruct Hc as [Hop Hf].
  apply negb_true_iff in Hop. pose proof Hf as Hsf. apply list_eqb_spec in Hsf.
  unfold host_is_empty in Hhost. destruct (su_host sb) as [[| | | |]|] eqn:Eh; try discriminate Hhost.
  unfold first_nwdl in Hfirst. destruct (Whatwg.path_segments sb) as [|p0 Pr] eqn:EP; [discriminate Hfirst|].
  cbn [first_seg] in Hok.
  destruct (ntnl l) as [|c1 R1] eqn:El; [discriminate Hok|].
  apply andb_true_iff in Hok. destruct Hok as [Hok Hst]. apply andb_true_iff in Hok. destruct Hok as [Hok Hfp].
  apply andb_true_iff in Hok. destruct Hok as [Hok Hw]. apply andb_true_iff in Hok. destruct Hok as [Esl1 Hh].
  apply negb_true_iff in Hw.
  exists c1, R1, p0. split; [reflexivity|]. split; [exact Esl1|]. split; [exact Hh|]. split; [exact Hop|]. split; [exact Hf|].
  split; [unfold one_init; rewrite EP, Hw, Hfirst; reflexivity|].
  destruct (inp_next_some l c1 R1 El) as (l1 & En1 & Hl1 & _).
  rewrite <- Hl1 in Hh, Hfp, Hst, Hw |- *.
  exact (parse_file_one_carry dbg hp hpo hd shp shs b sb SEmpty l c1 l1 p0 Pr R Hop Hsf Eh Hse EP Hfirst Hu En1 Esl1 Hh Hw Hfp Hst).
Qed.

Theorem class_file_rel_one_carry input b sb : usv_list input -> related dbg shs b sb ->
  in_class_file_rel_one_carry sb input = true ->
  agree_good dbg shs (parse_url dbg hp hpo hd None (Some b) input) (spec_basic_url_parse shp input (Some sb))
  /\ (forall su u, spec_basic_url_parse shp input (Some sb) = BDone su -> parse_url dbg hp hpo hd None (Some b) input = POk u ->
        full_base dbg shs u su).
Proof.
  intros Hu R Hc. unfold in_class_file_rel_one_carry in Hc.
  rewrite spec_clean_is_ntnl_trim in Hc. set (l := input_new_trim_c0 input) in *.
  assert (usv_list l) as Hul by exact (usv_trim input Hu).
  destruct (file_one_carry_model b sb l R Hul Hc) as (c1 & R1 & p0 & El & Esl1 & Hh & Hop & Hf & Hin0 & u & HO & Ru & Hbo).
  assert (spec_basic_url_parse shp input (Some sb) = BDone (file_tail (fkeep sb [p0]) (spath_f R1 [p0] []))) as HS.
  { rewrite <- Hin0. apply (spec_file_rel_one shp sb input c1 R1); try assumption.
    rewrite spec_clean_is_ntnl_trim. exact El. }
  assert (parse_url dbg hp hpo hd None (Some b) input = parse_file dbg hp hd None CUrlParser STFile (Some b) l) as Epu.
  { assert ((c1 =? 35) = false) as E35 by (unfold is_sl in Esl1; lia).
    assert (scheme_type_of (b_scheme b) = STFile) as Hst.
    { rewrite (rel_sch _ _ _ _ R). apply list_eqb_spec in Hf. rewrite Hf. reflexivity. }
    exact (parse_url_file_rel dbg hp hpo hd b input c1 R1 (related_not_cbb dbg shs b sb R Hop) Hst El
             (is_sl_scheme_none c1 R1 Esl1) E35). }
  rewrite Epu. exact (agree_assemble dbg shs _ _ _ u HS HO Ru Hbo (one_result_shape sb [p0] _)).
Qed.

Theorem class_file_same_one_carry input b sb : usv_list input -> related dbg shs b sb ->
  in_class_file_same_one_carry sb input = true ->
  agree_good dbg shs (parse_url dbg hp hpo hd None (Some b) input) (spec_basic_url_parse shp input (Some sb))
  /\ (forall su u, spec_basic_url_parse shp input (Some sb) = BDone su -> parse_url dbg hp hpo hd None (Some b) input = POk u ->
        full_base dbg shs u su).
Proof.
  intros Hu R Hc. unfold in_class_file_same_one_carry in Hc.
  destruct (spec_scheme (spec_clean input)) as [[sch R0]|] eqn:Es; [|discriminate Hc].
  apply andb_true_iff in Hc. destruct Hc as [Hsch Hc]. apply list_eqb_spec in Hsch. subst sch.
  destruct (parse_url_file_scheme dbg hp hpo hd (Some b) input R0 Hu Es) as (rem & Hur & Hrem & Epu).
  rewrite <- Hrem in Hc.
  destruct (file_one_carry_model b sb rem R Hur Hc) as (c1 & R1 & p0 & El & Esl1 & Hh & Hop & Hf & Hin0 & u & HO & Ru & Hbo).
  rewrite (rel_sch _ _ _ _ R), (proj1 (list_eqb_spec _ _) Hf) in Epu. change (list_eqb str_file s_file) with true in Epu.
  assert (spec_basic_url_parse shp input (Some sb) = BDone (file_tail (fkeep sb [p0]) (spath_f R1 [p0] []))) as HS.
  { rewrite <- Hin0. apply (spec_file_same_one shp sb input c1 R1); try assumption.
    rewrite Es, <- Hrem, El. reflexivity. }
  rewrite Epu. exact (agree_assemble dbg shs _ _ _ u HS HO Ru Hbo (one_result_shape sb [p0] _)).
Qed.

End CarryClass.

Theorem class_file_one_carry_model dbg idna : forall input b sb,
  usv_list input -> full_base dbg spec_host_serializer b sb ->
  in_class_file_rel_one_carry sb input || in_class_file_same_one_carry sb input = true ->
  agree_good dbg spec_host_serializer
    (parse_url dbg (host_parse idna) host_parse_opaque host_display None (Some b) input)
    (spec_basic_url_parse (spec_host_parser idna) input (Some sb))
  /\ (forall su u, spec_basic_url_parse (spec_host_parser idna) input (Some sb) = BDone su ->
        parse_url dbg (host_parse idna) host_parse_opaque host_display None (Some b) input = POk u ->
        full_base dbg spec_host_serializer u su).
Proof.
  intros input b sb Hu [[R _] _] Hc. apply orb_true_iff in Hc. destruct Hc as [Hc|Hc].
  - exact (class_file_rel_one_carry dbg _ _ _ _ _ eq_refl input b sb Hu R Hc).
  - exact (class_file_same_one_carry dbg _ _ _ _ _ eq_refl input b sb Hu R Hc).
Qed.

(* non-vacuity: against the parse result of file:///C:/dir/f the references  /y ,  \..\z?q  (".." behind the sole
   drive letter: popped on neither side),  file:/a/./b#f  are in the classes (class 1 of Known_C01); both sides give
   file:///C:/y, file:///C:/z?q, file:///C:/a/b#f *)
Example class_file_one_carry_nonvacuous :
  let idna := id_idna in
  let P base i := parse_url true (host_parse idna) host_parse_opaque host_display None base i in
  let S sbase i := spec_basic_url_parse (spec_host_parser idna) i sbase in
  let bt := [102;105;108;101;58;47;47;47;67;58;47;100;105;114;47;102] in
  match P None bt, S None bt with
  | POk b, BDone sb =>
      let ok (cls : spec_url -> list N -> bool) i h :=
        cls sb i = true /\ known_c01_v3 (Some b) i = 1
        /\ match P (Some b) i, S (Some sb) i with
           | POk u, BDone su => q_href u = h /\ api_of_model true u = Some (spec_api_list spec_host_serializer su)
           | _, _ => False end in
      ok in_class_file_rel_one_carry [47;121] [102;105;108;101;58;47;47;47;67;58;47;121]
      /\ ok in_class_file_rel_one_carry [92;46;46;92;122;63;113] [102;105;108;101;58;47;47;47;67;58;47;122;63;113]
      /\ ok in_class_file_same_one_carry [102;105;108;101;58;47;97;47;46;47;98;35;102] [102;105;108;101;58;47;47;47;67;58;47;97;47;98;35;102]
  | _, _ => False
  end.
Proof. vm_compute. repeat split. Qed.

(* all file-base arms proved beside the assembled statement, one recogniser *)
(* path-relative (Proofs/C01_EqFileBase.v, C01_EqFileBase2.v), one leading separator (host kept / drive letter behind the
   separator / drive letter of the base carried over), the drive-letter dispatch without a separator - scheme-less and
   behind "file:" *)
Definition in_file_base_arms (sb : spec_url) (input : list N) : bool :=
  in_class_file_rel_path sb input || in_class_file_same_path sb input
  || in_class_file_rel_one sb input || in_class_file_same_one sb input
  || in_class_file_rel_drive sb input || in_class_file_same_drive sb input
  || in_class_file_rel_one_carry sb input || in_class_file_same_one_carry sb input.

Theorem file_base_arms_model dbg idna : forall input b sb,
  usv_list input -> full_base dbg spec_host_serializer b sb -> in_file_base_arms sb input = true ->
  agree_good dbg spec_host_serializer
    (parse_url dbg (host_parse idna) host_parse_opaque host_display None (Some b) input)
    (spec_basic_url_parse (spec_host_parser idna) input (Some sb))
  /\ (forall su u, spec_basic_url_parse (spec_host_parser idna) input (Some sb) = BDone su ->
        parse_url dbg (host_parse idna) host_parse_opaque host_display None (Some b) input = POk u ->
        full_base dbg spec_host_serializer u su).
Proof.
  intros input b sb Hu Hb Hc. unfold in_file_base_arms in Hc.
  repeat (apply orb_true_iff in Hc; destruct Hc as [Hc|Hc]).
  - exact (class_file_rel_path_model dbg idna input b sb Hu Hb Hc).
  - exact (class_file_same_path_model dbg idna input b sb Hu Hb Hc).
  - exact (class_file_rel_one_model dbg idna input b sb Hu Hb Hc).
  - exact (class_file_same_one_model dbg idna input b sb Hu Hb Hc).
  - exact (class_file_rel_drive_model dbg idna input b sb Hu Hb Hc).
  - exact (class_file_same_drive_model dbg idna input b sb Hu Hb Hc).
  - apply (class_file_one_carry_model dbg idna input b sb Hu Hb). rewrite Hc. reflexivity.
  - apply (class_file_one_carry_model dbg idna input b sb Hu Hb). rewrite Hc. apply orb_true_r.
Qed.
