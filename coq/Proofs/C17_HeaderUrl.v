(* Proofs/C17_HeaderUrl.v - the header half of C17 for opaque-path data: URLs whose header has no '?':
   the text parse_header hands to the MIME parser and its base64 flag are what the Fetch processor
   computes (steps 4-6, 11 condition, 11.4-11.6, 12) from the URL serialization. *)
From RU Require Import Base.Prelude Base.Utf8 Base.Utf8Facts Gen.Tables Model.PercentEncoding
  Model.Parser Model.Mime Model.DataUrl Model.DataUrlTie
  Spec.Fetch
  Proofs.ListN Proofs.C02_Enc
  Proofs.C17_Total Proofs.C17_Fragment
  Proofs.C17_BodyUrl Proofs.C17_Header.

(* The mimeType of the existential is encode T_CONTROLS (filter not_tnl h): opaque_noq_serialized
   (C17_BodyUrl.v) gives the serialization, header_bytes (C17_Header.v) the rest.
   Properties/C17.v: C17_header_text; C17_base64_flag follows from it in C17_Partial.v. *)
Theorem header_is_fetch_header dbg hp ho hd s rem u h B : usv_list s ->
  parse_scheme CUrlParser (input_new_trim_c0 s) = Some (s_data, rem) -> inp_split_prefix_char 47 rem = None ->
  parse_url dbg hp ho hd None None s = POk u ->
  find_comma_before_fragment (utf8_encode rem) = Ok (Some (h, B)) ->
  ~ In 63 h ->
  exists mimeType encodedBody,
    collect_until_comma (skipn 5 (url_without_fragment u)) = (mimeType, Some encodedBody)
    /\ header_of h = fetch_header mimeType.
Proof.
  intros Hs Hp H47 Hu HB Hq.
  destruct (opaque_noq_serialized dbg hp ho hd s rem u h B Hs Hp H47 Hu HB Hq) as (eb & He & _).
  exists (encode T_CONTROLS (filter C02_Enc.not_tnl h)), eb. split; [exact He|].
  apply header_bytes; [|exact Hq].
  destruct (find_comma_spec _ _ _ HB) as (Hsplit & _ & _).
  assert (Hb : bytes (utf8_encode rem)).
  { apply utf8_encode_bytes.
    destruct (parse_opaque_explicit dbg hp ho hd s s_data rem u Hs Hp scheme_type_of_data H47 Hu) as [Hur _]. exact Hur. }
  rewrite Hsplit in Hb. apply bytes_app in Hb. tauto.
Qed.
