(* Proofs/C07_HostReal.v - the host hypothesis of the C07 equivalence (host_fn_ok of Proofs/C07_EqHostname.v: same
   success, same text, host_disp_ok, empty host <-> SEmpty <-> empty string) for the REAL host functions - Host::parse
   with a domain-to-ASCII oracle, Host::parse_opaque, Display - against the Standard's host parser with the same oracle
   and the Standard's host serializer, pointwise and relative to the FIRST clause of the oracle hypothesis only (IdnaOut
   of Proofs/C09_RealC01.v: every output of the oracle is ASCII outside the deny list - implied by IdnaOK2, which holds
   of the real idna crate up to Known_C10, and by IdnaOK): both sides ask the SAME oracle for the same host text once
   and compare the answers; idempotence of the oracle is never needed.
     host_fn_real_opaque_out   on every scalar-value string (from C01 host_agree_real_all + real_HostWf_out)
     host_fn_real_special_out  on every non-empty scalar-value string (from C01 host_agree_special + real_HostWf_out)
   host_fns_ok itself quantifies over ALL strings (also non-scalar-value ones, and the empty string for Host::parse)
   and is NOT implied by the oracle hypothesis (Properties/C07.v C07_host_fns_special_empty_string); the strings the
   setters and the parser hand to the host functions are sub-strings of scalar-value inputs, non-empty for Host::parse
   (Proofs/C07_HostOn.v). *)
From Coq Require Import Bool.
From RU Require Import Base.Prelude Base.Utf8 Base.Utf8Facts Model.AsciiSet Gen.Tables Model.PercentEncoding
  Model.HostT Model.Host Model.UrlRecord Spec.Whatwg Spec.WhatwgHost Spec.WhatwgHostParse
  Proofs.C09_Wf Proofs.C09_Host Proofs.C09_Inst Proofs.C09_InstWf Proofs.C02_Reach Proofs.C02_AuthParts
  Proofs.C03_ReachParts Proofs.C03_ReachHost Proofs.C06_Host
  Proofs.C01_EqAuthModel Proofs.C01_EqSpModel Proofs.C01_EqSpHost Proofs.C09_RealC01 Proofs.C07_EqHostname.

Definition host_fn_ok_at (hf : list N -> result host) (hd : host -> list N)
           (shp : bool -> list N -> option spec_host) (shs : spec_host -> list N) (o : bool) (s : list N) : Prop :=
  match hf s, host_parsing shp o s with
  | Ok h, Some sh => hd h = shs sh /\ host_disp_ok hd h
                     /\ (h = HDomain [] <-> sh = SEmpty) /\ (h = HDomain [] <-> s = [])
  | Err _, None => True
  | _, _ => False
  end.

Lemma text_wf_head t : host_text_wf t -> exists c r, t = c :: r /\ c <> 58 /\ c <> 64.
Proof.
  intros (N0 & N1 & N2 & _). destruct t as [|x r]; [contradiction|]. exists x, r. split; [reflexivity|].
  split; intros ->; [apply N1 | apply N2]; reflexivity.
Qed.

Lemma wf_disp_ok hd h : hd (HDomain []) = [] -> (h <> HDomain [] -> host_text_wf (hd h)) -> host_disp_ok hd h.
Proof.
  intros He Hw. unfold host_disp_ok.
  destruct h as [[|c d]|a|p]; cbn [hi_of_host]; [exact He | | |]; apply text_wf_head; apply Hw; discriminate.
Qed.

Section Out.
Variable idna : list N -> option (list N).
Hypothesis OUT : IdnaOut idna.

Lemma host_parse_x_shape_out input h : host_parse_x idna input = XOk h -> host_shape h.
Proof.
  intros H. destruct h as [d|a|ps].
  - destruct (parse_domain idna input d H) as (H1 & H2 & _). apply HS_dom; [exact H2|].
    pose proof (OUT _ d H1) as Hout.
    apply forallb_forall. intros c Hc. rewrite Forall_forall in Hout. apply dom_char_hostc, Hout, Hc.
  - apply HS_v4. unfold host_parse_x in H. destruct (Host.starts_with 91 input).
    { destruct (bracketed_ok _ _ H) as (x & Hx & _). discriminate Hx. }
    destruct (idna (decode (utf8_encode input))) as [dom|]; [|discriminate].
    destruct dom as [|c dom']; [discriminate|].
    destruct (Host.ends_in_a_number (c :: dom')); [|discriminate].
    destruct (parse_ipv4addr (c :: dom')) as [x| | |] eqn:Ev; cbn [xr_map] in H; try discriminate.
    inversion H; subst. eapply parse_ipv4addr_bound. exact Ev.
  - apply HS_v6. unfold host_parse_x in H. destruct (Host.starts_with 91 input).
    + destruct (bracketed_ok _ _ H) as (x & Hx & Hw). inversion Hx; subst. exact Hw.
    + destruct (idna (decode (utf8_encode input))) as [dom|]; [|discriminate].
      destruct dom as [|c dom']; [discriminate|].
      destruct (Host.ends_in_a_number (c :: dom')); [|discriminate].
      destruct (parse_ipv4addr (c :: dom')); cbn [xr_map] in H; discriminate.
Qed.

Theorem real_HostWf_out : HostWf (host_parse idna) host_parse_opaque host_display.
Proof.
  split; [|split; [|reflexivity]].
  - intros s h E Hne. apply host_text_ok_wf.
    exact (proj1 (shape_text h (host_parse_x_shape_out s h (host_parse_ok_x _ _ _ E)) Hne)).
  - intros s h E Hne. apply host_text_ok_wf. exact (proj1 (hpo_clause s h E Hne)).
Qed.

Theorem host_fn_real_opaque_out s : usv_list s ->
  host_fn_ok_at host_parse_opaque host_display (spec_host_parser idna) spec_host_serializer true s.
Proof.
  intros Hu. pose proof (host_agree_real_all idna s Hu) as A. unfold host_agree in A. unfold host_fn_ok_at.
  destruct real_HostWf_out as (_ & W2 & W3).
  destruct (host_parse_opaque s) as [h|e] eqn:Eh;
    destruct (host_parsing (spec_host_parser idna) true s) as [sh|] eqn:Es; try exact A.
  destruct A as (A1 & A2 & A3 & A4).
  split; [exact A1|]. split; [apply wf_disp_ok; [exact W3 | exact (W2 s h Eh)]|]. split; [|exact A3].
  split.
  - intros Hh. apply A3 in Hh. subst s. cbn in Es. injection Es as <-. reflexivity.
  - intros ->. apply A3. apply A4. rewrite A1. reflexivity.
Qed.

Theorem host_fn_real_special_out s : usv_list s -> s <> [] ->
  host_fn_ok_at (host_parse idna) host_display (spec_host_parser idna) spec_host_serializer false s.
Proof.
  intros Hu Hne. pose proof (host_agree_special idna OUT s Hu) as A. unfold host_agree_sp in A.
  unfold host_fn_ok_at. destruct s as [|c r]; [contradiction|].
  destruct real_HostWf_out as (W1 & _ & W3).
  destruct (host_parse idna (c :: r)) as [h|e] eqn:Eh;
    destruct (host_parsing (spec_host_parser idna) false (c :: r)) as [sh|] eqn:Es; try exact A.
  destruct A as (A1 & A2 & A3 & A4 & A5).
  split; [exact A1|]. split; [apply wf_disp_ok; [exact W3 | exact (W1 _ h Eh)]|]. split.
  - split; [intros X; contradiction|]. intros ->. exfalso. apply A4. rewrite A1. reflexivity.
  - split; [intros X; contradiction | discriminate].
Qed.

End Out.

