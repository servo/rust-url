(* Proofs/C08_Std.v - the STANDARD-side reading of the first two clauses of C08.
   (1) On the Standard's basic URL parser alone (Spec/Whatwg.v, any host parser): against a base record that is
       not opaque and whose scheme is not "file", EVERY reference that - after the Standard's cleaning - has no
       scheme and does not start with two slash characters ('/', and '\' only for a special base) succeeds and
       keeps scheme, username, password, host and port of the base (std_contain); the empty reference gives the
       base with a null fragment, '#f' replaces only the fragment, '?q' only query and fragment (lemmas of
       C01_EqEmpty / C01_EqRef, collected as std_simple).
   (2) The crate agrees: for a full_base pair (model record `related` to the Standard's) the model's join
       returns a record related to the Standard's result (or Overflow beyond u32::MAX), which is contained
       in the sense of C08_contain (corollary of C01's statement_all + C08's contain_nonfile). *)
From Coq Require Import ZifyBool ZifyN.
From RU Require Import Base.Prelude Base.Utf8 Base.Utf8Facts Model.AsciiSet Gen.Tables
  Model.PercentEncoding Model.HostT Model.UrlRecord Model.Parser Model.Setters Model.WF Model.KnownC01 Model.KnownC08 Spec.Whatwg
  Proofs.ListN Proofs.C02_Parts Proofs.C02_Path Proofs.C03_WF Proofs.C01_Tables Proofs.C08_Input
  Proofs.C08_Simple Proofs.C08_Contain Proofs.C08_NoAuth
  Proofs.C01_EqRun Proofs.C01_EqEnc Proofs.C01_EqApi Proofs.C01_EqOpaque Proofs.C01_EqRef Proofs.C01_EqDots
  Proofs.C01_EqPathSpec Proofs.C01_EqPath Proofs.C01_EqEmpty
  Proofs.C01_EqRel Proofs.C01_EqRelPath Proofs.C01_EqRelArms Proofs.C01_EqRelBase
  Proofs.C01_EqSpSpec Proofs.C01_EqSpPath Proofs.C01_EqSpBase Proofs.C01_EqAsm Proofs.C01_EqShape Proofs.C01_EqCover.
Open Scope N_scope.
Open Scope list_scope.

(* the premise of the containment law on the Standard's side: decided on the cleaned reference and the scheme of
   the Standard's base record *)
Definition std_contain_pre (sb : spec_url) (t : list N) : bool :=
  negb (has_scheme_b t) && negb (two_leading_slashes (is_special_scheme (su_scheme sb)) t).

Lemma rel_path_result_s_front sb P0 t : spec_same_front sb (rel_path_result_s sb P0 t).
Proof.
  unfold rel_path_result_s, tail_url, spec_same_front. destruct (snd (spath_s t P0 [])) as [|c r]; [repeat split|].
  destruct (c =? 63); [|repeat split; reflexivity].
  unfold query_final, frag_opt. destruct (C01_EqRun.after_hash r); repeat split; reflexivity.
Qed.

Lemma no_scheme_std input : has_scheme_b (spec_clean input) = false -> spec_scheme (spec_clean input) = None.
Proof.
  rewrite spec_clean_is_ntnl_trim. intros H. pose proof (parse_scheme_none _ H) as E.
  pose proof (scheme_state_eq (input_new_trim_c0 input)) as K. rewrite E in K.
  destruct (spec_scheme (ntnl (input_new_trim_c0 input))); [contradiction | reflexivity].
Qed.

(* C01_EqEmpty.spec_empty_ref takes a debug flag and two host functions that it does not use: any value serves *)
Definition spec_empty_ref' (shp : bool -> list N -> option spec_host) :=
  spec_empty_ref true (fun _ => Err EmptyHost) (fun _ => Err EmptyHost) shp.

Section Std.
Variable shp : bool -> list N -> option spec_host.

(* containment on the Standard's side *)
Theorem std_contain input sb : spec_valid sb -> has_opaque_path sb = false ->
  list_eqb (su_scheme sb) str_file = false -> std_contain_pre sb (spec_clean input) = true ->
  exists su, spec_basic_url_parse shp input (Some sb) = BDone su /\ spec_same_front sb su.
Proof.
  intros V Hop Hnf Hpre. unfold std_contain_pre in Hpre. apply andb_true_iff in Hpre. destruct Hpre as [H1 H2].
  apply negb_true_iff in H1. apply negb_true_iff in H2.
  pose proof (no_scheme_std input H1) as Hs.
  destruct (spec_clean input) as [|c t] eqn:Ecl.
  { eexists. split; [exact (spec_empty_ref' shp input sb Ecl V Hop)|]. repeat split. }
  destruct (c =? 35) eqn:E35.
  { apply N.eqb_eq in E35. subst c. eexists. split; [exact (spec_fragment_only shp input sb t Ecl V)|]. repeat split. }
  destruct (c =? 63) eqn:E63.
  { apply N.eqb_eq in E63. subst c. eexists. split; [exact (spec_query_only shp input sb t Ecl V Hop)|].
    unfold ref_result. repeat split. }
  destruct (is_special_scheme (su_scheme sb)) eqn:Hsp.
  - (* special, not file *)
    destruct (is_sl c) eqn:Esl.
    + eexists. split.
      * apply spec_parse_of_runs. rewrite Ecl.
        apply (runs_rel_abs_s shp (c :: t) sb Hop Hsp Hnf c t eq_refl Esl); [|exact Hs].
        destruct t as [|c2 r]; [exact I|]. cbn [two_leading_slashes] in H2.
        unfold is_ref_slash in H2. rewrite !andb_true_r in H2. unfold is_sl in *. rewrite Esl in H2. exact H2.
      * apply rel_path_result_s_front.
    + eexists. split.
      * apply spec_parse_of_runs. rewrite Ecl.
        exact (runs_rel_path_s shp (c :: t) sb Hop Hsp Hnf c t eq_refl Hs Esl E63 E35).
      * apply rel_path_result_s_front.
  - destruct (c =? 47) eqn:E47.
    + apply N.eqb_eq in E47. subst c. eexists. split.
      * apply (spec_rel_abs shp input sb t Hop Hsp Ecl).
        destruct t as [|c2 r]; [reflexivity|]. cbn [two_leading_slashes] in H2. unfold is_ref_slash in H2.
        rewrite !andb_false_r, !orb_false_r in H2. cbn [starts_with_cp]. exact H2.
      * apply rel_path_result_front.
    + eexists. split.
      * exact (spec_rel_path shp input sb c t Hop Hsp Ecl Hs E47 E63 E35).
      * apply rel_path_result_front.
Qed.

(* the three simple references on the Standard's side *)
Theorem std_simple input sb : spec_valid sb ->
  (spec_clean input = [] -> has_opaque_path sb = false ->
     spec_basic_url_parse shp input (Some sb) = BDone (set_fragment sb None))
  /\ (forall f, spec_clean input = 35 :: f ->
        spec_basic_url_parse shp input (Some sb) = BDone (set_fragment sb (Some (upe in_fragment_set f))))
  /\ (forall q, spec_clean input = 63 :: q -> has_opaque_path sb = false ->
        spec_basic_url_parse shp input (Some sb)
        = BDone (set_fragment (set_query sb (Some (upe (qset_of sb) (C01_EqRun.before_hash q))))
                              (option_map (upe in_fragment_set) (C01_EqRun.after_hash q)))).
Proof.
  intros V. split; [|split].
  - intros Ecl Hop. exact (spec_empty_ref' shp input sb Ecl V Hop).
  - intros f Ecl. exact (spec_fragment_only shp input sb f Ecl V).
  - intros q Ecl Hop. exact (spec_query_only shp input sb q Ecl V Hop).
Qed.

End Std.

(* the model's premise is the Standard's *)
Lemma contain_pre_std dbg shs b sb input : related dbg shs b sb ->
  contain_pre b input = std_contain_pre sb (spec_clean input).
Proof.
  intros R. unfold contain_pre, std_contain_pre, base_special. rewrite ref_text_eq, <- spec_clean_is_ntnl_trim.
  rewrite (rel_sch _ _ _ _ R), special_schemes_are_the_standards. reflexivity.
Qed.

Lemma related_not_file dbg shs b sb : related dbg shs b sb -> list_eqb (su_scheme sb) str_file = false ->
  st_is_file (b_st b) = false.
Proof.
  intros R H. unfold b_st. rewrite (rel_sch _ _ _ _ R). unfold scheme_type_of.
  change s_file with str_file. rewrite H.
  destruct (list_eqb (su_scheme sb) s_http || list_eqb (su_scheme sb) s_https || list_eqb (su_scheme sb) s_ws
            || list_eqb (su_scheme sb) s_wss || list_eqb (su_scheme sb) s_ftp); reflexivity.
Qed.

(* the crate's join agrees with the Standard's, and both keep the front *)
Section Agree.
Variable dbg : bool.
Variable hp hpo : list N -> result host.
Variable hd : host -> list N.
Variable shp : bool -> list N -> option spec_host.
Variable shs : spec_host -> list N.

Theorem std_contain_agree b sb input : usv_list input -> full_base dbg shs b sb ->
  has_opaque_path sb = false -> list_eqb (su_scheme sb) str_file = false ->
  contain_pre b input = true -> known_c01_v1 (Some b) input = 0 ->
  host_hyp3 hp hpo hd shp shs (Some sb) input ->
  exists su, spec_basic_url_parse shp input (Some sb) = BDone su /\ spec_same_front sb su
    /\ ((parse_url dbg hp hpo hd None (Some b) input = PErr Overflow /\ U32_MAX_P < nlen (get_href shs su))
        \/ exists u', parse_url dbg hp hpo hd None (Some b) input = POk u' /\ related dbg shs u' su
                      /\ full_base dbg shs u' su /\ contained dbg b u').
Proof.
  intros Hu Hfb Hop Hnf Hcp Hk HH. pose proof (proj1 (proj1 Hfb)) as R.
  pose proof Hcp as Hcp'. rewrite (contain_pre_std dbg shs b sb input R) in Hcp'.
  destruct (std_contain shp input sb (rel_valid _ _ _ _ R) Hop Hnf Hcp') as (su & HS & HF).
  exists su. split; [exact HS|]. split; [exact HF|].
  destruct (statement_all dbg hp hpo hd shp shs input (Some b) (Some sb) Hu Hfb Hk HH) as [A FB].
  rewrite HS in A. cbn [agree_good] in A. destruct A as [_ [[E L]|(u' & E & Ru)]]; [left; split; assumption|].
  right. exists u'. split; [exact E|]. split; [exact Ru|]. split; [exact (FB su u' HS E)|].
  apply (contain_nonfile dbg hp hpo hd b input u' (rel_wf _ _ _ _ R)); try assumption.
  - rewrite (rel_cbb _ _ _ _ R), Hop. reflexivity.
  - exact (related_not_file dbg shs b sb R Hnf).
Qed.

(* the three simple references: the model's result is the closed form of C08_empty / C08_frag / C08_query and is
   related to the Standard's *)
Theorem std_empty_agree b sb input : related dbg shs b sb -> has_opaque_path sb = false -> spec_clean input = [] ->
  spec_basic_url_parse shp input (Some sb) = BDone (set_fragment sb None)
  /\ parse_url dbg hp hpo hd None (Some b) input = POk (without_fragment b)
  /\ related dbg shs (without_fragment b) (set_fragment sb None).
Proof.
  intros R Hop Ecl. split; [exact (spec_empty_ref' shp input sb Ecl (rel_valid _ _ _ _ R) Hop)|].
  assert (ref_text input = []) as Hr by (rewrite ref_text_eq, <- spec_clean_is_ntnl_trim; exact Ecl).
  assert (cannot_be_a_base b = Some false) as Hcb by (rewrite (rel_cbb _ _ _ _ R), Hop; reflexivity).
  split; [exact (join_empty dbg hp hpo hd b input Hcb Hr)|]. exact (related_without_fragment dbg hp hpo shp shs b sb R).
Qed.

End Agree.

(* the same for the parser model with the host model plugged in against the Standard's parser with the
   Standard's host parser: relative to IdnaOK idna only *)
From RU Require Import Model.Host Proofs.C09_Host Spec.WhatwgHostParse.

(* a parse result without a base and the Standard's are a full_base pair (second part of statement_all) *)
Theorem parsed_full_base dbg idna : IdnaOK idna -> forall input u su,
  usv_list input -> known_c01_v1 None input = 0 ->
  parse_url dbg (host_parse idna) host_parse_opaque host_display None None input = POk u ->
  spec_basic_url_parse (spec_host_parser idna) input None = BDone su ->
  full_base dbg spec_host_serializer u su.
Proof.
  intros HI input u su Hu Hk Hm HS.
  exact (proj2 (statement_all_model dbg idna HI input None None Hu I Hk) su u HS Hm).
Qed.

(* non-vacuity: base = the parse results of "http://u:p@example.com:81/a/b/c?q#f" (special) and of
   "web+x://h.x/a/b" (not special); the references meet contain_pre and are outside Known_C01; the Standard's
   results keep the front *)
Definition std_case (base : list N) (refs : list (list N)) : bool :=
  let idna := ex_idna_clean in
  match parse_url true (host_parse idna) host_parse_opaque host_display None None base,
        spec_basic_url_parse (spec_host_parser idna) base None with
  | POk b, BDone sb =>
      (known_c01_v1 None base =? 0) && negb (has_opaque_path sb) && negb (list_eqb (su_scheme sb) str_file)
      && forallb (fun r =>
           contain_pre b r && (known_c01_v1 (Some b) r =? 0)
           && match spec_basic_url_parse (spec_host_parser idna) r (Some sb),
                    parse_url true (host_parse idna) host_parse_opaque host_display None (Some b) r with
              | BDone su, POk u' =>
                  list_eqb (su_scheme su) (su_scheme sb) && list_eqb (su_username su) (su_username sb)
                  && list_eqb (su_password su) (su_password sb)
                  && list_eqb (get_href spec_host_serializer su) (ser u')
              | _, _ => false
              end) refs
  | _, _ => false
  end.

From Coq Require Import String.
From RU Require Import Proofs.C02_Reach.
Open Scope string_scope.
