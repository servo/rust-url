(* Proofs/C13_Known.v - the two known classes Known_C13 (F-C13-1) and Known_C13_2 (F-C13-2) with their witnesses;
   the definitions the round-trip statements use (has_non_ascii, lower_digits, eq_upto_digit_case); the executable
   checkers rt_enc_check and rt_dec_check, which C13_EncDec.small_scope_round_trips runs over all_seqs.
   Panic sites are line numbers of idna/src/punycode.rs. *)
From RU Require Import Base.Prelude Base.U32_c13 Model.Punycode Spec.Rfc3492
  Proofs.C13_Enc Proofs.C13_Dec Proofs.C13_DecB.

(* F-C13-1: while encoding s some delta fits in 32 bits but the decoder's i + delta does not *)
Definition Known_C13 (s : list N) : Prop := known_c13 s = true.
(* F-C13-2: decoder input of 2^32 code units or more (base_len as u32 truncates, length + 1 overflows) *)
Definition Known_C13_2 (p : list N) : Prop := U32_MAX < len p.

Lemma usv_list_forallb s : forallb is_usvb s = true -> usv_list s.
Proof.
  unfold usv_list. induction s as [|c r IH]; cbn [forallb]; intros H; [constructor|].
  apply andb_true_iff in H. destruct H as [H1 H2]. constructor; [apply is_usvb_spec; exact H1|exact (IH H2)].
Qed.

Definition witness_c13_1 : list N := repeat 128 3856 ++ [1113679].   (* U+0080 x 3856 ++ [U+10FE4F] *)

Definition witness_c13_1_p : list N :=
  Eval vm_compute in (match encode true witness_c13_1 with Ok p => p | _ => [] end).

Lemma witness_c13_1_usv : forallb is_usvb witness_c13_1 = true.
Proof. vm_compute. reflexivity. Qed.
Lemma witness_c13_1_known : known_c13 witness_c13_1 = true.
Proof. vm_compute. reflexivity. Qed.
Lemma witness_c13_1_enc_debug : encode true witness_c13_1 = Ok witness_c13_1_p.
Proof. vm_compute. reflexivity. Qed.
Lemma witness_c13_1_enc_release : encode false witness_c13_1 = Ok witness_c13_1_p.
Proof. vm_compute. reflexivity. Qed.
(* Whether the checked decoder fails depends on the output decoded so far only through its length (the insertion
   index is `i mod (len out + 1)`, nothing reads `out`).  So the failure of the witness is decided by a run that
   carries the length alone: linear in the input, where the decoder itself inserts into a list 3857 times. *)
Fixpoint b_len_loop (dig : N -> option N) (input : list N) (mid : bool) (oldi w k i n bias l : N) : bool :=
  match input with
  | [] => negb mid
  | c :: rest =>
      match dig c with
      | None => false
      | Some digit =>
          if (digit * w <=? U32_MAX) && (i + digit * w <=? U32_MAX) then
            if digit <? s_threshold k bias then
              let i := i + digit * w in
              let len1 := l + 1 in
              (len1 <=? U32_MAX) && (n + i / len1 <=? U32_MAX) && is_usvb (n + i / len1)
              && b_len_loop dig rest false (i mod len1 + 1) 1 s_base (i mod len1 + 1) (n + i / len1)
                   (s_adapt (i - oldi) len1 (oldi =? 0)) len1
            else (w * (s_base - s_threshold k bias) <=? U32_MAX)
                 && b_len_loop dig rest true oldi (w * (s_base - s_threshold k bias)) (k + s_base) (i + digit * w) n bias l
          else false
      end
  end.

Lemma b_dec_loop_len dig input : forall mid oldi w k i n bias out,
  b_len_loop dig input mid oldi w k i n bias (len out) = false ->
  b_dec_loop dig input mid oldi w k i n bias out = None.
Proof.
  induction input as [|c rest IH]; intros mid oldi w k i n bias out; [now destruct mid|].
  rewrite b_dec_loop_cons. cbn [b_len_loop]. destruct (dig c) as [digit|]; [|reflexivity].
  destruct ((digit * w <=? U32_MAX) && (i + digit * w <=? U32_MAX)); [|reflexivity].
  destruct (digit <? s_threshold k bias).
  - unfold b_dec_break. cbv zeta. set (i' := i + digit * w). set (len1 := len out + 1).
    destruct ((len1 <=? U32_MAX) && (n + i' / len1 <=? U32_MAX)); [|reflexivity].
    destruct (is_usvb (n + i' / len1)); [|reflexivity]. cbn [andb].
    intros H. apply IH. rewrite len_insert_at. exact H.
  - destruct (w * (s_base - s_threshold k bias) <=? U32_MAX); [|reflexivity]. apply IH.
Qed.

(* the encoding has no delimiter (first conjunct); the checked decoder b_dec_loop stops at the last delta, where
   i + delta exceeds u32::MAX (second conjunct).  That the model's decoder then returns Err in both configurations
   is witness_c13_1_dec below. *)
Lemma witness_c13_1_checked :
  s_split witness_c13_1_p = ([], witness_c13_1_p)
  /\ b_dec_loop digit_u8 witness_c13_1_p false 0 1 s_base 0 s_initial_n s_initial_bias [] = None.
Proof. split; [vm_compute; reflexivity | apply b_dec_loop_len; vm_compute; reflexivity]. Qed.

Lemma witness_c13_1_dec cfg : decode cfg witness_c13_1_p = Err.
Proof.
  destruct witness_c13_1_checked as [Hs Hb].
  apply (decode_err_of_checked cfg _ _ _ Hs eq_refl); [vm_compute; discriminate|exact Hb].
Qed.

Lemma witness_c13_1_len : N.of_nat (length witness_c13_1) = 3857 /\ N.of_nat (length witness_c13_1_p) = 3866.
Proof. vm_compute. split; reflexivity. Qed.

Lemma c13_1_refuted :
  exists s, usv_list s /\ Known_C13 s /\
    forall cfg, exists p, encode cfg s = Ok p /\ decode cfg p = Err /\ decode cfg p <> Ok s.
Proof.
  exists witness_c13_1.
  split; [exact (usv_list_forallb _ witness_c13_1_usv)|]. split; [exact witness_c13_1_known|].
  intros cfg. exists witness_c13_1_p. rewrite witness_c13_1_dec.
  split; [destruct cfg; [exact witness_c13_1_enc_debug|exact witness_c13_1_enc_release]|]. split; [reflexivity|discriminate].
Qed.

(* the boundary of the class along U+0080 x n ++ [U+10FE4F]: outside for n = 3855, inside for n = 3856 (the witness).
   That the round trip holds for every s of at most 3855 scalars is C13_Small.dec_enc_small_3855. *)
Lemma c13_1_boundary :
  known_c13 (repeat 128 3855 ++ [1113679]) = false /\ known_c13 (repeat 128 3856 ++ [1113679]) = true.
Proof. vm_compute. split; reflexivity. Qed.

(* F-C13-2: the witness is 97 x (2^32 - 1) ++ [45; 97], i.e. 2^32 - 1 basic code units, the delimiter, one digit *)
Lemma rposition_repeat n : s_rposition (repeat 97 n ++ [45; 97]) = Some n.
Proof.
  induction n as [|n IH]; [reflexivity|]. cbn [repeat app]. cbn [s_rposition]. rewrite IH. reflexivity.
Qed.

Lemma forallb_repeat n : forallb (fun c => c <? 128) (repeat 97 n) = true.
Proof. induction n as [|n IH]; [reflexivity|]. cbn [repeat forallb]. rewrite IH. reflexivity. Qed.

(* with base_len = u32::MAX the first delta reaches `length + 1` at punycode.rs:233: overflow panic with the checks
   compiled in; without them it wraps to 0 and adapt divides by it at punycode.rs:33 *)
Lemma decode_huge cfg n : N.of_nat n = U32_MAX ->
  decode cfg (repeat 97 n ++ [45; 97]) = Panic (if cfg then 233 else 33).
Proof.
  intros Hn. unfold decode, decode_with, decoder_decode. rewrite split_eq. unfold s_split.
  rewrite rposition_repeat.
  destruct n as [|n']; [discriminate|]. remember (Datatypes.S n') as n.
  replace (0 <? n)%nat with true by (subst n; reflexivity).
  assert (Hf : firstn n (repeat 97 n ++ [45; 97]) = repeat 97 n).
  { rewrite firstn_app, repeat_length, Nat.sub_diag. cbn [firstn]. rewrite app_nil_r.
    rewrite <- (repeat_length 97 n) at 1. apply firstn_all. }
  assert (Hs : skipn (Datatypes.S n) (repeat 97 n ++ [45; 97]) = [97]).
  { rewrite skipn_app, repeat_length. replace (Datatypes.S n - n)%nat with 1%nat by lia.
    rewrite skipn_all2 by (rewrite repeat_length; lia). reflexivity. }
  rewrite Hf, Hs. cbn [inst_external andb]. rewrite forallb_repeat. cbn [negb].
  rewrite repeat_length, Hn.
  destruct cfg; vm_compute; reflexivity.
Qed.

Lemma c13_2_refuted :
  exists p, Known_C13_2 p /\ ascii p /\ forall cfg, exists site, decode cfg p = Panic site.
Proof.
  exists (repeat 97 (N.to_nat U32_MAX) ++ [45; 97]). split; [|split].
  - unfold Known_C13_2, len. rewrite app_length, repeat_length, Nat2N.inj_add, N2Nat.id. cbn [length]. lia.
  - apply ascii_app. split.
    + unfold ascii. generalize (N.to_nat U32_MAX). intros n. induction n as [|n IH]; cbn [repeat]; constructor; [unfold is_ascii; lia|exact IH].
    + constructor; [unfold is_ascii; lia|]. constructor; [unfold is_ascii; lia|constructor].
  - intros cfg. eexists. apply decode_huge. apply N2Nat.id.
Qed.

(* all sequences of length <= n over an alphabet; rt_enc_check and rt_dec_check at the end of the file are run over them *)
Fixpoint all_seqs (alphabet : list N) (n : nat) : list (list N) :=
  match n with
  | O => [[]]
  | Datatypes.S k => [] :: flat_map (fun s => map (fun a => a :: s) alphabet) (all_seqs alphabet k)
  end.

Definition has_non_ascii (s : list N) : bool := existsb (fun c => 128 <=? c) s.

(* p with the part after the last delimiter (at a position > 0) in lower case.  eq_upto_digit_case q p is not
   symmetric: it says that q is that lower-case spelling of p. *)
Definition lower_digits (p : list N) : list N :=
  let (base, rest) := s_split p in
  match s_rposition p with
  | Some (Datatypes.S _) => base ++ [s_delimiter] ++ map to_lower rest
  | _ => map to_lower rest
  end.
Definition eq_upto_digit_case (q p : list N) : Prop := q = lower_digits p.

(* decode (encode s) = s, and encode (decode p) = lower_digits p; the second is checked only where decode succeeds
   with a non-ASCII scalar in the result (the hypotheses of enc_dec_main) and is true elsewhere *)
Definition rt_enc_check (s : list N) : bool :=
  match encode true s with
  | Ok p => match decode true p with Ok s' => list_eqb s s' | _ => false end
  | _ => false
  end.
Definition rt_dec_check (p : list N) : bool :=
  match decode true p with
  | Ok s => if has_non_ascii s then match encode true s with Ok q => list_eqb q (lower_digits p) | _ => false end else true
  | _ => true
  end.
