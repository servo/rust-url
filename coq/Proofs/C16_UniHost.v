(* Proofs/C16_UniHost.v - C16, the Unicode serialization of an origin, host level: the premise
     hp (tu d) = Ok (HDomain d)
   of C16_rt_parsed_unicode for the host MODEL (Model/Host.v, idna = idna_of A cfg of Proofs/C09_InstIdna.v = the IDNA
   model at the URL deny list) and the ToUnicode MODEL (Model/Uts46.v), from C12 (clause a_of_u, Proofs/Idna_C12d_*.v).
   uni_host_rt: for a domain d with
       to_ascii A cfg d DENY_URL HAllow DIgnore = Ok (b, d)   (a fixed point of ToASCII at the URL deny list),
       d <> [],  ends_in_a_number d = false
   - all three hold of a domain that Host::parse returned outside Known_C10_long (parse_domain of Proofs/C09_Host.v,
   returned_domain_fixed and fixed_domain_facts of Proofs/C16_RTUModel.v); the statement asks for them instead of for a
   parse - and outside Known_C12 / Known_C10_long,
   Host::parse reads the Unicode form t of d - ToUnicode at the URL deny list - back as the domain d, when t has no '%'
   in it and does not start with '['.
   uni_host_rt_origin: the same for the text t that origin.rs displays, under two hypotheses:
     (P1) ui_text (to_unicode A cfg d DENY_EMPTY HAllow) = ui_text (to_unicode A cfg d DENY_URL HAllow): origin.rs calls
          idna::domain_to_unicode = ToUnicode with the EMPTY deny list, Host::parse calls ToASCII with the URL deny list,
          and the two ToUnicode texts are equal;
     (P2) ~ In 37 (utf8_encode t) and Host.starts_with 91 t = false: the displayed text contains no '%' and does not
          start with '['.
   Both are theorems of Proofs/C16_UniDeny.v for every d that ToASCII accepts at the URL deny list (p1_empty_url, p2_url:
   '%' and '[' are on that list); uni_host_rt_full there is uni_host_rt_origin with (P1) and (P2) supplied.
   The parser model on a non-ASCII authority is Proofs/C16_RTU.v. *)
From RU Require Import Base.Prelude Base.Utf8 Base.Utf8Facts Model.Uts46
  Proofs.Idna_Known Proofs.Idna_Hyp Proofs.Idna_C10_Inner Proofs.Idna_C10b_Long Proofs.Idna_C10b_Stmt
  Proofs.Idna_WalkEnc Proofs.Idna_C10c_Drun Proofs.Idna_C12c_Stmt4 Proofs.Idna_C12d_Round Proofs.Idna_C12d_Stmt5.
From RU Require Import Model.HostT Model.Host Proofs.C09_Host Proofs.C09_InstIdna.

Section UniHost.
Variable A : adapter.
Variable cfg : bool.
Hypothesis HOK : AdapterOK A.
Hypothesis HUSV : AdapterUSV A.
Hypothesis HNT : NvNoTrunc A.
Hypothesis HNI : NvIdem A.
Hypothesis HNM : AsciiNoMark A.
Hypothesis HMP : MapPrefix A.
Hypothesis HMF : NvMapFix A.
Hypothesis HNG : NvNoGrow A.

Theorem uni_host_rt d b : bytes d -> to_ascii A cfg d DENY_URL HAllow DIgnore = U32_c13.Ok (b, d) ->
  Known_C12 A cfg d DENY_URL HAllow = false -> Known_C10_long d = false ->
  d <> [] -> ends_in_a_number d = false ->
  let t := ui_text (to_unicode A cfg d DENY_URL HAllow) in
  ~ In 37 (utf8_encode t) -> Host.starts_with 91 t = false ->
  host_parse (idna_of A cfg) t = HostT.Ok (HDomain d).
Proof.
  intros Hb H HK Hlong Hne Hnum t Hpct Hbr.
  destruct (c12_all A cfg HOK HUSV HNT HNI HNM HMP HMF HNG d DENY_URL HAllow b d Hb valid_deny_url HK H Hlong) as (_ & (b' & Ha) & _).
  pose proof (c12_unicode_usv A cfg HOK HUSV HNT HNI HNM HMP HMF HNG d DENY_URL HAllow b d Hb valid_deny_url HK H Hlong) as Hu.
  fold t in Ha, Hu.
  unfold host_parse, host_parse_x. rewrite Hbr. rewrite (decode_no_pct _ Hpct).
  assert (Eb : forallb is_byteb (utf8_encode t) = true).
  { apply forallb_forall. intros c Hc. pose proof (utf8_encode_bytes t Hu) as Hbt. unfold bytes in Hbt. rewrite Forall_forall in Hbt.
    specialize (Hbt c Hc). unfold is_byte in Hbt. unfold is_byteb. lia. }
  unfold idna_of. rewrite Eb. unfold domain_to_ascii_cow. rewrite Ha.
  destruct d as [|x r]; [contradiction Hne; reflexivity|]. rewrite Hnum. reflexivity.
Qed.

(* the same for the text that origin.rs displays - idna::domain_to_unicode, the EMPTY deny list; the three hypotheses
   after `let t` are (P1) and the two halves of (P2) of the head comment *)
Theorem uni_host_rt_origin d b : Forall (fun c => c < 128) d -> to_ascii A cfg d DENY_URL HAllow DIgnore = U32_c13.Ok (b, d) ->
  Known_C12 A cfg d DENY_URL HAllow = false -> Known_C10_long d = false ->
  d <> [] -> ends_in_a_number d = false ->
  let t := ui_text (domain_to_unicode A cfg d) in
  ui_text (to_unicode A cfg d DENY_EMPTY HAllow) = ui_text (to_unicode A cfg d DENY_URL HAllow) ->
  ~ In 37 (utf8_encode t) -> Host.starts_with 91 t = false ->
  host_parse (idna_of A cfg) t = HostT.Ok (HDomain d).
Proof.
  intros Ha H HK Hlong Hne Hnum t HP1 Hpct Hbr.
  assert (Hb : bytes d) by (unfold bytes; eapply Forall_impl; [|exact Ha]; intros c Hc; unfold is_byte; cbv beta in Hc; lia).
  assert (Et : t = ui_text (to_unicode A cfg d DENY_URL HAllow)).
  { unfold t, domain_to_unicode. rewrite (C09_Host.utf8_encode_ascii d Ha). exact HP1. }
  rewrite Et in *. exact (uni_host_rt d b Hb H HK Hlong Hne Hnum Hpct Hbr).
Qed.
End UniHost.

(* the premises hold for the adapter lowsan4 and the domain a.xn--bcher-kva; Host::parse reads its Unicode form
   a.b<u-umlaut>cher back as that domain *)
Example uni_host_example :
  to_ascii lowsan4 true W_stmt5_A DENY_URL HAllow DIgnore = U32_c13.Ok (true, W_stmt5_A) /\
  Known_C12 lowsan4 true W_stmt5_A DENY_URL HAllow = false /\ Known_C10_long W_stmt5_A = false /\
  ends_in_a_number W_stmt5_A = false /\
  ui_text (domain_to_unicode lowsan4 true W_stmt5_A) = W_stmt5_U /\
  ui_text (to_unicode lowsan4 true W_stmt5_A DENY_EMPTY HAllow) = ui_text (to_unicode lowsan4 true W_stmt5_A DENY_URL HAllow) /\
  existsb (N.eqb 37) (utf8_encode W_stmt5_U) = false /\ Host.starts_with 91 W_stmt5_U = false /\
  host_parse (idna_of lowsan4 true) W_stmt5_U = HostT.Ok (HDomain W_stmt5_A).
Proof. vm_compute. repeat split; reflexivity. Qed.
