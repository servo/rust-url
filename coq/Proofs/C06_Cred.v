(* Proofs/C06_Cred.v - set_password and set_username on a well-formed record with a host. *)
From RU Require Import Base.Prelude Base.Utf8 Gen.Tables Model.PercentEncoding Model.UrlRecord Model.Parser
  Model.Setters Model.WF Proofs.ListN Proofs.C03_WF Proofs.C06_List Proofs.C06_WFI Proofs.C06_Tail
  Proofs.C06_Suffix Proofs.C06_Front Proofs.C06_Port Proofs.C06_Steps.

(* replace the bytes [a, b) of the serialization by x; everything from b on moves *)
Definition cred_splice (u : url) (a b : N) (x : list N) (ue' : N) : url :=
  let b' := a + nlen x in
  mkUrl (nfirstn a (ser u) ++ x ++ nskipn b (ser u)) (scheme_end u) ue'
        (shift b b' (host_start u)) (shift b b' (host_end u)) (hosti u) (port u) (shift b b' (path_start u))
        (option_map (shift b b') (query_start u)) (option_map (shift b b') (fragment_start u)).

Section Splice.
Variables (dbg : bool) (u : url) (a b : N) (x : list N) (ue' : N).
Hypothesis W : wf_b u = true.
Hypothesis HT : host_text_ok u.
Hypothesis Hh : has_host u = true.
Hypothesis Ha1 : scheme_end u + 3 <= a.
Hypothesis Hab : a <= b.
Hypothesis Hb : b <= host_start u.
Hypothesis Hue1 : scheme_end u + 3 <= ue'.
Hypothesis Hue2 : ue' <= shift b (a + nlen x) (host_start u).

Let u' := cred_splice u a b x ue'.
Let b' := a + nlen x.

Lemma cs_auth : has_authority_b u = true.
Proof. apply has_host_authority; assumption. Qed.

Lemma cs_bounds : username_end u <= host_start u /\ host_start u < host_end u /\ host_end u <= path_start u
  /\ path_start u <= nlen (ser u).
Proof.
  pose proof (wf_auth_facts u W cs_auth) as F. destruct (HT Hh) as (T & _).
  pose proof (af_hs F); pose proof (af_he F); pose proof (af_ps F); pose proof (af_len F). lia.
Qed.

Lemma cs_ser : ser u' = nfirstn a (ser u) ++ x ++ nskipn b (ser u).
Proof. reflexivity. Qed.

Lemma cs_pre : agree_pre a (ser u) (ser u').
Proof. destruct cs_bounds. rewrite cs_ser. apply agree_pre_nfirstn. lia. Qed.

Lemma cs_suf : agree_suf b b' (ser u) (ser u').
Proof. destruct cs_bounds. rewrite cs_ser. apply splice_suf. lia. Qed.

Lemma cs_len : nlen (ser u') = b' + (nlen (ser u) - b).
Proof. destruct cs_bounds. rewrite cs_ser. apply splice_len; lia. Qed.

Lemma cs_tail : shifted_tail b b' u u'.
Proof. repeat split. Qed.

Lemma cs_sauth : shifted_auth b b' u u'.
Proof. repeat split. Qed.

(* bytes of the new serialization *)
Lemma cs_byte_lo i c : i < a -> byte_eqb (ser u') i c = byte_eqb (ser u) i c.
Proof. intros H. apply (pre_byte_eqb a); [apply cs_pre | exact H]. Qed.

Lemma cs_byte_hi i c : b <= i -> byte_eqb (ser u') (shift b b' i) c = byte_eqb (ser u) i c.
Proof. intros H. apply (suf_byte_eqb b b'); [apply cs_suf | exact H | reflexivity]. Qed.

Lemma cs_byte_mid k c : k < nlen x -> byte_eqb (ser u') (a + k) c = byte_eqb x k c.
Proof.
  intros H. destruct cs_bounds. unfold byte_eqb. rewrite cs_ser.
  rewrite nnth_app_ge by (rewrite nlen_nfirstn; lia). rewrite nlen_nfirstn by lia.
  replace (a + k - a) with k by lia. rewrite nnth_app_lt by exact H. reflexivity.
Qed.

Lemma cs_piece_mid : nfirstn (nlen x) (nskipn a (ser u')) = x.
Proof.
  destruct cs_bounds. rewrite cs_ser, splice_skip by lia. apply nfirstn_app_exact.
Qed.

Hypothesis HU : userinfo_ok u'.

Lemma cs_wf : wf_b u' = true.
Proof.
  pose proof cs_auth as Ha. destruct cs_bounds as (B1 & B2 & B3 & B4).
  pose proof W as W0. apply wf_b_iff in W0. rewrite Ha in W0. destruct W0 as (S & (AU & PS) & Q).
  assert (has_authority_b u' = true) as Ha'.
  { rewrite (has_authority_b_pre a u u' cs_pre) by (try lia; reflexivity). exact Ha. }
  pose proof cs_len as Hl.
  apply wf_b_iff. rewrite Ha'. split; [|split; [split|]].
  - apply (scheme_ok_pre a u u'); [apply cs_pre | lia | reflexivity | exact S].
  - destruct AU as (A1 & A2 & A3 & A4 & A5 & U & Hn & P).
    unfold auth_ok. split; [exact Hue1|]. split; [exact Hue2|].
    change (host_start u') with (shift b b' (host_start u)). change (host_end u') with (shift b b' (host_end u)).
    change (path_start u') with (shift b b' (path_start u)). change (hosti u') with (hosti u).
    split; [unfold shift; lia|]. split; [unfold shift; lia|]. split; [rewrite Hl; unfold shift; lia|].
    split; [exact HU|]. split; [intros E; specialize (Hn E); unfold shift; lia|].
    apply (asfx_port_ok u u' b b' W Ha cs_suf Hb); [rewrite Hl; lia | apply cs_tail | apply cs_sauth].
  - apply (sfx_pathstart_ok u u' b b' W cs_suf); [lia | rewrite Hl; lia | apply cs_tail | exact PS].
  - apply (sfx_qf_ok u u' b b' W cs_suf); [lia | rewrite Hl; lia | apply cs_tail].
Qed.

Lemma cs_host_text_ok : host_text_ok u'.
Proof.
  pose proof cs_len as Hl.
  apply (asfx_host_text_ok u u' b b' cs_suf Hb); [rewrite Hl; lia | apply cs_sauth | exact HT].
Qed.

Lemma cs_scheme : scheme u' = scheme u.
Proof.
  rewrite (scheme_eval u' cs_wf), (scheme_eval u W). unfold piece. cbn [pidx].
  change (scheme_end u') with (scheme_end u). rewrite !N.sub_0_r, !nskipn_0.
  rewrite (pre_firstn a _ _ _ cs_pre) by lia. reflexivity.
Qed.

Lemma cs_host_str : host_str u' = host_str u.
Proof.
  pose proof cs_len as Hl.
  apply (asfx_host_str u u' b b' W cs_auth cs_suf Hb); [rewrite Hl; lia | apply cs_sauth | apply cs_wf].
Qed.

Lemma cs_back : same_back dbg u u'.
Proof.
  pose proof cs_len as Hl.
  apply (asfx_back u u' b b' W cs_auth cs_suf Hb); [rewrite Hl; lia | apply cs_tail | apply cs_wf].
Qed.

Lemma cs_has_authority' : has_authority_b u' = true.
Proof. rewrite (has_authority_b_pre a u u' cs_pre) by (try lia; reflexivity). apply cs_auth. Qed.

End Splice.

Lemma has_password_of_byte u : wf_b u = true -> has_authority_b u = true -> username_end u < nlen (ser u) ->
  has_password_b u = byte_eqb (ser u) (username_end u) 58.
Proof.
  intros W Ha H. unfold has_password_b. rewrite Ha. replace (username_end u =? nlen (ser u)) with false by lia. reflexivity.
Qed.

Definition userinfo_enc (t : list N) : list N := pe_display T_USERINFO (utf8_encode t).

(* all facts about one splice, packaged *)
Record splice_facts (dbg : bool) (u : url) (a b : N) (x : list N) (ue' : N) : Prop := {
  sf_wf : wf_b (cred_splice u a b x ue') = true;
  sf_ht : host_text_ok (cred_splice u a b x ue');
  sf_scheme : scheme (cred_splice u a b x ue') = scheme u;
  sf_host : host_str (cred_splice u a b x ue') = host_str u;
  sf_back : same_back dbg u (cred_splice u a b x ue');
  sf_auth : has_authority_b (cred_splice u a b x ue') = true;
  sf_pre : agree_pre a (ser u) (ser (cred_splice u a b x ue'));
  sf_mid : nfirstn (nlen x) (nskipn a (ser (cred_splice u a b x ue'))) = x
}.

Lemma splice_all dbg u a b x ue' : wf_b u = true -> host_text_ok u -> has_host u = true ->
  scheme_end u + 3 <= a -> a <= b -> b <= host_start u -> scheme_end u + 3 <= ue' ->
  ue' <= shift b (a + nlen x) (host_start u) -> userinfo_ok (cred_splice u a b x ue') ->
  splice_facts dbg u a b x ue'.
Proof.
  intros. constructor.
  - apply cs_wf; assumption.
  - apply cs_host_text_ok; assumption.
  - apply cs_scheme; assumption.
  - apply cs_host_str; assumption.
  - apply cs_back; assumption.
  - apply cs_has_authority'; assumption.
  - apply cs_pre; assumption.
  - apply cs_piece_mid; assumption.
Qed.

Lemma clear_pw dbg u end_ : wf_b u = true -> host_text_ok u -> has_host u = true ->
  byte_eqb (ser u) (username_end u) 58 = true -> username_end u + 2 <= host_start u ->
  byte_eqb (ser u) (host_start u - 1) 64 = true ->
  (end_ = host_start u /\ scheme_end u + 3 = username_end u)
  \/ (end_ = host_start u - 1 /\ scheme_end u + 3 <> username_end u) ->
  let u' := cred_splice u (username_end u) end_ [] (username_end u) in
  wf_b u' = true /\ host_text_ok u' /\ scheme u' = scheme u /\ username dbg u' = username dbg u
  /\ host_str u' = host_str u /\ port u' = port u /\ same_back dbg u u' /\ password dbg u' = Some None.
Proof.
  intros W HT Hc U2 U3 U4 Hend u'.
  pose proof (has_host_authority u W Hc) as Ha. pose proof (wf_auth_facts u W Ha) as F.
  pose proof (af_ue F); pose proof (af_hs F); pose proof (af_he F); pose proof (af_ps F); pose proof (af_len F).
  destruct (HT Hc) as (T1 & T2 & T3).
  assert (username_end u <= end_ /\ end_ <= host_start u) as [Hend1 Hend2] by lia.
  assert (scheme_end u + 3 <= username_end u) as Q1 by lia.
  assert (username_end u <= shift end_ (username_end u + nlen []) (host_start u)) as Q2
    by (unfold shift; rewrite nlen_nil; lia).
  pose proof (cs_byte_hi u (username_end u) end_ [] (username_end u) W HT Hc Q1 Hend1 Hend2 Q1 Q2) as BH.
  assert (userinfo_ok u') as HU.
  { unfold userinfo_ok. change (username_end u') with (username_end u).
    change (host_start u') with (shift end_ (username_end u + nlen []) (host_start u)).
    change (scheme_end u') with (scheme_end u).
    destruct Hend as [[He1 He2]|[He1 He2]].
    - left. splits; [unfold shift; rewrite nlen_nil; lia | lia |].
      specialize (BH (host_start u) 58 ltac:(lia)). unfold shift in BH. rewrite nlen_nil in BH.
      replace (host_start u - end_ + (username_end u + 0)) with (username_end u) in BH by lia.
      fold u' in BH. rewrite BH. exact T2.
    - right. right. split; [|unfold shift; rewrite nlen_nil; lia].
      specialize (BH (host_start u - 1) 64 ltac:(lia)). unfold shift in BH. rewrite nlen_nil in BH.
      replace (host_start u - 1 - end_ + (username_end u + 0)) with (username_end u) in BH by lia.
      fold u' in BH. rewrite BH. exact U4. }
  destruct (splice_all dbg u _ _ _ _ W HT Hc Q1 Hend1 Hend2 Q1 Q2 HU) as [W' HT' S' H' B' A' P' M'].
  fold u' in W', HT', S', H', B', A', P', M'.
  splits; try assumption; try reflexivity.
  - apply (username_same dbg u u' (username_end u)); try assumption; try reflexivity; lia.
  - rewrite (password_piece dbg u' W').
    assert (has_password_b u' = false) as Hp.
    { unfold has_password_b. destruct HU as [(V1 & V2 & V3)|[(V1 & V2 & V3)|(V1 & V2)]].
      - rewrite V3. apply andb_false_r.
      - exfalso. change (username_end u') with (username_end u) in *.
        change (host_start u') with (shift end_ (username_end u + nlen []) (host_start u)) in V2.
        unfold shift in V2. rewrite nlen_nil in V2. lia.
      - rewrite (byte_eqb_excl _ _ 64 58) by (try lia; exact V1). apply andb_false_r. }
    rewrite Hp. reflexivity.
Qed.

Lemma set_pw dbg u p : wf_b u = true -> host_text_ok u -> has_host u = true ->
  let x := 58 :: userinfo_enc p ++ [64] in
  let u' := cred_splice u (username_end u) (host_start u) x (username_end u) in
  wf_b u' = true /\ host_text_ok u' /\ scheme u' = scheme u /\ username dbg u' = username dbg u
  /\ host_str u' = host_str u /\ port u' = port u /\ same_back dbg u u'
  /\ password dbg u' = Some (Some (userinfo_enc p)).
Proof.
  intros W HT Hc x u'.
  pose proof (has_host_authority u W Hc) as Ha. pose proof (wf_auth_facts u W Ha) as F.
  pose proof (af_ue F); pose proof (af_hs F) as Fhs; pose proof (af_he F); pose proof (af_ps F); pose proof (af_len F).
  assert (nlen x = 1 + nlen (userinfo_enc p) + 1) as LX.
  { unfold x. rewrite nlen_cons, nlen_app. change (nlen [64]) with 1. lia. }
  assert (scheme_end u + 3 <= username_end u) as Q1 by lia.
  assert (username_end u <= shift (host_start u) (username_end u + nlen x) (host_start u)) as Q2 by (unfold shift; lia).
  assert (host_start u <= host_start u) as Q3 by lia.
  pose proof (cs_byte_mid u (username_end u) (host_start u) x (username_end u) W HT Hc Q1 Fhs Q3 Q1 Q2) as BM.
  fold u' in BM.
  assert (userinfo_ok u') as HU.
  { unfold userinfo_ok. right. left. change (username_end u') with (username_end u).
    change (host_start u') with (shift (host_start u) (username_end u + nlen x) (host_start u)).
    splits.
    - specialize (BM 0 58 ltac:(lia)). rewrite N.add_0_r in BM. rewrite BM. reflexivity.
    - unfold shift. lia.
    - replace (shift (host_start u) (username_end u + nlen x) (host_start u) - 1)
        with (username_end u + (nlen x - 1)) by (unfold shift; lia).
      rewrite BM by lia.
      unfold byte_eqb. replace (nlen x - 1) with (1 + nlen (userinfo_enc p)) by lia. unfold x.
      change (58 :: userinfo_enc p ++ [64]) with ([58] ++ userinfo_enc p ++ [64]).
      rewrite nnth_app_ge by (change (nlen [58]) with 1; lia). change (nlen [58]) with 1.
      replace (1 + nlen (userinfo_enc p) - 1) with (nlen (userinfo_enc p)) by lia.
      rewrite nnth_app_ge by lia. rewrite N.sub_diag. reflexivity. }
  destruct (splice_all dbg u _ _ _ _ W HT Hc Q1 Fhs Q3 Q1 Q2 HU) as [W' HT' S' H' B' A' P' M'].
  fold u' in W', HT', S', H', B', A', P', M'.
  splits; try assumption; try reflexivity.
  - apply (username_same dbg u u' (username_end u)); try assumption; try reflexivity; lia.
  - rewrite (password_piece dbg u' W').
    assert (has_password_b u' = true) as Hp.
    { unfold has_password_b. rewrite A'.
      destruct HU as [(V1 & V2 & V3)|[(V1 & V2 & V3)|(V1 & V2)]].
      - exfalso. change (username_end u') with (username_end u) in *.
        change (host_start u') with (shift (host_start u) (username_end u + nlen x) (host_start u)) in V1.
        unfold shift in V1. lia.
      - rewrite V1. pose proof (byte_eqb_lt _ _ _ V1).
        replace (username_end u' =? nlen (ser u')) with false by lia. reflexivity.
      - exfalso. change (username_end u') with (username_end u) in *.
        change (host_start u') with (shift (host_start u) (username_end u + nlen x) (host_start u)) in V2.
        unfold shift in V2. lia. }
    rewrite Hp. do 2 f_equal. unfold piece. cbn [pidx]. rewrite Hp.
    change (username_end u') with (username_end u).
    change (host_start u') with (shift (host_start u) (username_end u + nlen x) (host_start u)).
    replace (shift (host_start u) (username_end u + nlen x) (host_start u) - 1 - (username_end u + 1))
      with (nlen (userinfo_enc p)) by (unfold shift; lia).
    replace (username_end u + 1) with (1 + username_end u) by lia. rewrite <- nskipn_nskipn.
    assert (nskipn (username_end u) (ser u') = x ++ nskipn (host_start u) (ser u)) as Esk.
    { change (ser u') with (nfirstn (username_end u) (ser u) ++ x ++ nskipn (host_start u) (ser u)).
      rewrite nskipn_app_ge by (rewrite nlen_nfirstn; lia). rewrite nlen_nfirstn by lia.
      rewrite N.sub_diag. reflexivity. }
    rewrite Esk. unfold x. change (nskipn 1 ((58 :: userinfo_enc p ++ [64]) ++ nskipn (host_start u) (ser u)))
      with ((userinfo_enc p ++ [64]) ++ nskipn (host_start u) (ser u)).
    rewrite <- app_assoc. apply nfirstn_app_exact.
Qed.

Theorem set_password_ok dbg u pw : wf_b u = true -> host_text_ok u ->
  exists u' st, set_password dbg u pw = Some (u', st)
  /\ (st <> SOk -> u' = u)
  /\ (st = SOk ->
      wf_b u' = true /\ host_text_ok u' /\ scheme u' = scheme u /\ username dbg u' = username dbg u
      /\ host_str u' = host_str u /\ port u' = port u /\ same_back dbg u u'
      /\ password dbg u' = Some (match pw with Some (c :: r) => Some (userinfo_enc (c :: r)) | _ => None end)).
Proof.
  intros W HT. unfold set_password. destruct (chcp_eval u W) as (c & Ec & Hc). rewrite Ec. cbn [bindo].
  destruct c.
  { exists u, SErrUnit. split; [reflexivity|]. split; [reflexivity | discriminate]. }
  specialize (Hc eq_refl). pose proof (has_host_authority u W Hc) as Ha. pose proof (wf_auth_facts u W Ha) as F.
  pose proof (af_ue F); pose proof (af_hs F); pose proof (af_he F); pose proof (af_ps F); pose proof (af_len F).
  destruct (HT Hc) as (T1 & T2 & T3).
  destruct (wf_tail_offsets_ge u (path_start u) W ltac:(lia)) as [Gq Gf].
  set (p := match pw with Some x => x | None => [] end).
  assert (match pw with Some (c :: r) => Some (userinfo_enc (c :: r)) | _ => None end
          = match p with c :: r => Some (userinfo_enc (c :: r)) | [] => None end) as Epw.
  { subst p. destruct pw as [[|? ?]|]; reflexivity. }
  rewrite Epw. clearbody p. clear Epw.
  destruct p as [|c0 r0].
  - (* clear the password *)
    rewrite byte_is_eqb by lia. cbn [bindo].
    destruct (af_userinfo F) as [[U1 U2]|[(U1 & U2 & U3 & U4)|(U1 & U2 & U3 & U4)]].
    + rewrite U2. exists u, SOk. split; [reflexivity|]. split; [intros X; contradiction|]. intros _.
      splits; try assumption; try reflexivity; try apply same_back_refl.
      rewrite (password_piece dbg u W). rewrite (has_password_of_byte u W Ha) by lia. rewrite U2. reflexivity.
    + rewrite U2. replace (1 <=? host_start u) with true by lia. rewrite (byte_is_of_eqb _ _ _ U4). cbn [bindo].
      replace (if dbg then assert_o true else Some tt) with (Some tt) by (destruct dbg; reflexivity). cbn [bindo].
      set (end_ := if scheme_end u + 3 =? username_end u then host_start u else host_start u - 1).
      assert (username_end u <= end_ /\ end_ <= host_start u) as [Hend1 Hend2].
      { subst end_. destruct (scheme_end u + 3 =? username_end u); lia. }
      replace ((username_end u <=? end_) && (end_ <=? nlen (ser u))) with true by lia. cbn [assert_o bindo].
      unfold sub_off, sub_off_opt. rewrite !adjust_ok by lia.
      rewrite !adjust_opt_ok by (destruct (query_start u), (fragment_start u); try exact I; lia). cbn [bindo].
      exists (cred_splice u (username_end u) end_ [] (username_end u)), SOk. split.
      { unfold cred_splice. rewrite nlen_nil, N.add_0_r. cbn [app].
        do 2 f_equal. f_equal; try (unfold shift; lia);
          apply option_map_shift_ext; intros i Hi; unfold shift;
          [rewrite Hi in Gq | rewrite Hi in Gf]; lia. }
      split; [intros X; contradiction|]. intros _.
      apply (clear_pw dbg u end_); try assumption.
      subst end_. destruct (scheme_end u + 3 =? username_end u) eqn:Ee; [left | right]; lia.
    + rewrite U2. exists u, SOk. split; [reflexivity|]. split; [intros X; contradiction|]. intros _.
      splits; try assumption; try reflexivity; try apply same_back_refl.
      rewrite (password_piece dbg u W). rewrite (has_password_of_byte u W Ha) by lia. rewrite U2. reflexivity.
  - (* set a password *)
    set (p := c0 :: r0).
    unfold u_slice_from. rewrite slice_from_o_some by lia. cbn [bindo].
    set (X := 58 :: userinfo_enc p ++ [64]).
    assert (push_encoded T_USERINFO (truncate (ser u) (username_end u) ++ [58]) p ++ [64]
            = nfirstn (username_end u) (ser u) ++ X) as Es.
    { unfold push_encoded, truncate, X, userinfo_enc. rewrite <- !app_assoc. reflexivity. }
    rewrite Es.
    assert (nlen (nfirstn (username_end u) (ser u) ++ X) = username_end u + nlen X) as El
      by (rewrite nlen_app, nlen_nfirstn by lia; reflexivity).
    rewrite El. rewrite !adjust_ok by lia. rewrite !adjust_opt_ok by (destruct (query_start u), (fragment_start u); try exact I; lia).
    cbn [bindo].
    exists (cred_splice u (username_end u) (host_start u) X (username_end u)), SOk. split.
    { unfold cred_splice. rewrite <- app_assoc. do 2 f_equal. f_equal. unfold shift. lia. }
    split; [intros Z; contradiction|]. intros _.
    apply (set_pw dbg u p); assumption.
Qed.

Lemma un_case dbg u b enc t : wf_b u = true -> host_text_ok u -> has_host u = true ->
  let a := scheme_end u + 3 in
  let x := enc ++ t in
  let ue' := a + nlen enc in
  let u' := cred_splice u a b x ue' in
  a <= b -> b <= host_start u -> ue' <= shift b (a + nlen x) (host_start u) ->
  userinfo_ok u' ->
  (byte_eqb (ser u) (username_end u) 58 = true -> b = username_end u /\ t = []) ->
  (byte_eqb (ser u) (username_end u) 58 = false -> byte_eqb (ser u') ue' 58 = false) ->
  wf_b u' = true /\ host_text_ok u' /\ scheme u' = scheme u /\ password dbg u' = password dbg u
  /\ host_str u' = host_str u /\ port u' = port u /\ same_back dbg u u'
  /\ username dbg u' = Some enc.
Proof.
  intros W HT Hc a x ue' u' Hab Hb Hue2 HU Hpw1 Hpw0.
  pose proof (has_host_authority u W Hc) as Ha. pose proof (wf_auth_facts u W Ha) as F.
  pose proof (af_ue F); pose proof (af_hs F); pose proof (af_he F); pose proof (af_ps F); pose proof (af_len F).
  assert (scheme_end u + 3 <= a) as Q0 by (subst a; lia).
  assert (scheme_end u + 3 <= ue') as Q1 by (subst ue' a; lia).
  destruct (splice_all dbg u a b x ue' W HT Hc Q0 Hab Hb Q1 Hue2 HU) as [W' HT' S' H' B' A' P' M'].
  fold u' in W', HT', S', H', B', A', P', M'.
  pose proof (cs_suf u a b x ue' W HT Hc Q0 Hab Hb Q1 Hue2) as SUF. fold u' in SUF.
  splits; try assumption; try reflexivity.
  - (* password *)
    rewrite (password_piece dbg u' W'), (password_piece dbg u W).
    assert (username_end u' < nlen (ser u')) as Hlt'.
    { pose proof (wf_auth_facts u' W' A') as F'. destruct (HT' Hc) as (T1' & _).
      pose proof (af_hs F'); pose proof (af_he F'); pose proof (af_ps F'); pose proof (af_len F'). lia. }
    destruct (HT Hc) as (T1 & _).
    rewrite (has_password_of_byte u' W' A' Hlt'), (has_password_of_byte u W Ha) by lia.
    change (username_end u') with ue'.
    destruct (byte_eqb (ser u) (username_end u) 58) eqn:E58.
    + destruct (Hpw1 eq_refl) as [-> ->].
      assert (nlen x = nlen enc) as Lx by (subst x; rewrite app_nil_r; reflexivity).
      assert (ue' = a + nlen enc) as Eue' by reflexivity.
      assert (ue' = shift (username_end u) (a + nlen x) (username_end u)) as Eue.
      { unfold shift. lia. }
      rewrite Eue. rewrite (suf_byte_eqb _ _ _ _ (username_end u) _ 58 SUF) by (try lia; reflexivity).
      rewrite E58. do 2 f_equal. unfold piece. cbn [pidx].
      assert (has_password_b u' = true) as Hp'.
      { rewrite (has_password_of_byte u' W' A' Hlt'). change (username_end u') with ue'. rewrite Eue.
        rewrite (suf_byte_eqb _ _ _ _ (username_end u) _ 58 SUF) by (try lia; reflexivity). exact E58. }
      assert (has_password_b u = true) as Hp by (rewrite (has_password_of_byte u W Ha) by lia; exact E58).
      rewrite Hp, Hp'. change (username_end u') with ue'.
      change (host_start u') with (shift (username_end u) (a + nlen x) (host_start u)).
      destruct (has_password_facts u W Hp) as (G1 & _).
      replace (shift (username_end u) (a + nlen x) (host_start u) - 1 - (ue' + 1))
        with (host_start u - 1 - (username_end u + 1)) by (unfold shift; lia).
      apply (suf_piece _ _ _ _ (username_end u + 1) _ _ SUF); [lia | unfold shift; lia].
    + rewrite (Hpw0 eq_refl). reflexivity.
  - (* username reads back as the encoding *)
    rewrite (username_eval dbg u' W'). f_equal. unfold piece. cbn [pidx]. rewrite A'.
    change (scheme_end u') with (scheme_end u). change (username_end u') with ue'.
    fold a. replace (ue' - a) with (nlen enc) by (subst ue'; lia).
    unfold u'. cbn [cred_splice ser]. rewrite splice_skip by (subst a; lia). subst x. rewrite <- app_assoc. apply nfirstn_app_exact.
Qed.

Lemma un_match_other {A} (new_empty : bool) (c : N) (k1 k2 k3 k4 k5 : A) : c <> 64 -> c <> 58 ->
  (match new_empty, c with
   | true, 64 => k1
   | false, 64 => k2
   | _, 58 => k3
   | true, _ => k4
   | false, _ => k5
   end) = if new_empty then k4 else k5.
Proof.
  intros H1 H2. destruct new_empty; (destruct c as [|p]; [reflexivity|]);
    do 7 (try (destruct p as [p|p|]; try reflexivity)); congruence.
Qed.

Lemma match64 {A} (c : N) (x y : A) : c <> 64 -> match c with 64 => x | _ => y end = y.
Proof.
  intros H. destruct c as [|p]; [reflexivity|].
  do 7 (try (destruct p as [p|p|]; try reflexivity)); congruence.
Qed.
Lemma match5864 {A} (c : N) (x y : A) : c <> 58 -> c <> 64 -> match c with 58 | 64 => x | _ => y end = y.
Proof.
  intros H1 H2. destruct c as [|p]; [reflexivity|].
  do 7 (try (destruct p as [p|p|]; try reflexivity)); congruence.
Qed.

(* the record set_username builds: behind the new username stands the old ":password@" if there is one,
   otherwise '@' unless the new username is empty *)
Definition with_username (u : url) (enc : list N) : url :=
  let pw := byte_eqb (ser u) (username_end u) 58 in
  cred_splice u (scheme_end u + 3) (if pw then username_end u else host_start u)
    (enc ++ if pw then [] else match enc with [] => [] | _ => [64] end) (scheme_end u + 3 + nlen enc).

Lemma with_username_ok dbg u enc : wf_b u = true -> host_text_ok u -> has_host u = true ->
  let u' := with_username u enc in
  wf_b u' = true /\ host_text_ok u' /\ scheme u' = scheme u /\ password dbg u' = password dbg u
  /\ host_str u' = host_str u /\ port u' = port u /\ same_back dbg u u' /\ username dbg u' = Some enc.
Proof.
  intros W HT Hc. pose proof (has_host_authority u W Hc) as Ha. pose proof (wf_auth_facts u W Ha) as F.
  pose proof (af_ue F); pose proof (af_hs F); pose proof (af_he F); pose proof (af_ps F); pose proof (af_len F).
  destruct (HT Hc) as (T1 & T2 & T3). unfold with_username. set (a := scheme_end u + 3).
  assert (forall b t, a <= b -> b <= host_start u ->
            a + nlen enc <= shift b (a + nlen (enc ++ t)) (host_start u)) as Q3
    by (intros; unfold shift; rewrite nlen_app; lia).
  destruct (byte_eqb (ser u) (username_end u) 58) eqn:E58.
  - (* the password stays where it is *)
    destruct (af_userinfo F) as [[U1 U2]|[(U1 & U2 & U3 & U4)|(U1 & U2 & U3 & U4)]]; try congruence.
    pose proof (cs_byte_hi u a (username_end u) (enc ++ []) (a + nlen enc) W HT Hc
                  ltac:(lia) ltac:(lia) ltac:(lia) ltac:(lia) ltac:(apply Q3; lia)) as BH.
    unfold shift in BH. rewrite app_nil_r in BH.
    apply un_case; try assumption; try lia; [apply Q3; lia | | intros _; split; reflexivity | congruence].
    right. left. cbn [cred_splice username_end host_start]. unfold shift. rewrite app_nil_r. splits.
    + rewrite <- U2, <- (BH (username_end u)) by lia. f_equal. lia.
    + lia.
    + rewrite <- U4, <- (BH (host_start u - 1)) by lia. f_equal. lia.
  - (* no password: '@' behind a non-empty username, nothing behind an empty one *)
    assert (byte_eqb (ser u) (host_start u) 58 = false) as T2' by exact T2.
    destruct enc as [|e0 E0].
    + pose proof (cs_byte_hi u a (host_start u) ([] ++ []) (a + nlen []) W HT Hc
                    ltac:(lia) ltac:(lia) ltac:(lia) ltac:(rewrite nlen_nil; lia) ltac:(apply Q3; lia) (host_start u) 58 ltac:(lia)) as BH.
      unfold shift in BH. cbn [app] in BH. rewrite nlen_nil, N.sub_diag, N.add_0_r, N.add_0_l in BH.
      subst a. apply un_case; try assumption; try lia; [apply Q3; lia | | congruence | intros _; cbn [app]; rewrite nlen_nil, N.add_0_r; rewrite BH; exact T2].
      left. cbn [cred_splice username_end host_start scheme_end app]. unfold shift. rewrite nlen_nil.
      splits; [lia | lia | rewrite N.add_0_r, BH; exact T2].
    + set (enc := e0 :: E0) in *.
      pose proof (cs_byte_mid u a (host_start u) (enc ++ [64]) (a + nlen enc) W HT Hc
                    ltac:(lia) ltac:(lia) ltac:(lia) ltac:(lia) ltac:(apply Q3; lia) (nlen enc) 64 ltac:(rewrite nlen_app; cbn; lia)) as BM.
      rewrite (byte_eqb_app_at enc 64 []) in BM.
      subst a. apply un_case; try assumption; try lia; [apply Q3; lia | | congruence | intros _; apply (byte_eqb_excl _ _ 64 58); [lia | exact BM]].
      right. right. cbn [cred_splice username_end host_start]. unfold shift. rewrite nlen_app.
      split; [exact BM | change (nlen [64]) with 1; lia].
Qed.

(* cutting one byte later and putting that byte back is the same splice *)
Lemma cred_splice_next u a b x ue' c : wf_b u = true -> nnth (ser u) b = Some c -> b + 1 <= host_start u ->
  host_start u <= host_end u -> host_end u <= path_start u ->
  cred_splice u a b x ue' = cred_splice u a (b + 1) (x ++ [c]) ue'.
Proof.
  intros W Hc Hb Hhe Hps. destruct (wf_tail_offsets_ge u (path_start u) W ltac:(lia)) as [Gq Gf].
  unfold cred_splice. rewrite nlen_app. change (nlen [c]) with 1.
  f_equal; try (unfold shift; lia).
  - rewrite (nskipn_cons_of_nnth _ _ _ Hc), <- !app_assoc. reflexivity.
  - apply option_map_shift_ext. intros i Hi. rewrite Hi in Gq. unfold shift. lia.
  - apply option_map_shift_ext. intros i Hi. rewrite Hi in Gf. unfold shift. lia.
Qed.

(* the offsets behind the cut are moved; the result is the splice *)
Lemma splice_offsets dbg u a b x ue' s' added r : wf_b u = true -> b <= host_start u -> host_start u <= host_end u ->
  host_end u <= path_start u ->
  s' = nfirstn a (ser u) ++ x ++ nskipn b (ser u) -> added = a + nlen x -> r = cred_splice u a b x ue' ->
  (hs <- adjust dbg (host_start u) b added ;; he <- adjust dbg (host_end u) b added ;;
   ps <- adjust dbg (path_start u) b added ;; qs <- adjust_opt dbg (query_start u) b added ;;
   fs <- adjust_opt dbg (fragment_start u) b added ;;
   Some (mkUrl s' (scheme_end u) ue' hs he (hosti u) (port u) ps qs fs, SOk)) = Some (r, SOk).
Proof.
  intros W B1 B2 B3 -> -> ->. destruct (wf_tail_offsets_ge u b W ltac:(lia)) as [Gq Gf].
  rewrite !adjust_ok by lia. rewrite !adjust_opt_ok by assumption. reflexivity.
Qed.

Lemma set_username_eval dbg u un : wf_b u = true -> host_text_ok u -> has_host u = true ->
  cannot_have_credentials_or_port u = Some false ->
  set_username dbg u un
  = Some (if list_eqb (nfirstn (username_end u - (scheme_end u + 3)) (nskipn (scheme_end u + 3) (ser u))) (utf8_encode un)
          then u else with_username u (userinfo_enc un), SOk).
Proof.
  intros W HT Hc Ec. unfold set_username. rewrite Ec. cbn [bindo].
  pose proof (has_host_authority u W Hc) as Ha. pose proof (wf_auth_facts u W Ha) as F.
  pose proof (af_ue F); pose proof (af_hs F); pose proof (af_he F); pose proof (af_ps F); pose proof (af_len F).
  destruct (HT Hc) as (T1 & T2 & T3).
  destruct (wf_tail_offsets_ge u (path_start u) W ltac:(lia)) as [Gq Gf].
  (* the debug assertion *)
  assert ((if dbg then x <- u_slice u (scheme_end u) (scheme_end u + 3) ;; assert_o (list_eqb x s_css) else Some tt) = Some tt) as ->.
  { destruct dbg; [|reflexivity]. unfold u_slice. rewrite slice_o_some by lia. cbn [bindo].
    pose proof (piece_scheme_sep u W) as PS. cbn [pidx] in PS. rewrite Ha in PS. unfold piece in PS. rewrite PS.
    reflexivity. }
  cbn [bindo]. unfold u_slice. rewrite slice_o_some by lia. cbn [bindo].
  destruct (list_eqb _ (utf8_encode un)); [reflexivity|].
  unfold u_slice_from. rewrite slice_from_o_some by lia. cbn [bindo].
  unfold push_encoded, truncate. fold (userinfo_enc un). set (enc := userinfo_enc un).
  set (a := scheme_end u + 3).
  assert (nlen (nfirstn a (ser u) ++ enc) = a + nlen enc) as -> by (rewrite nlen_app, nlen_nfirstn by lia; reflexivity).
  assert (exists c, nnth (ser u) (username_end u) = Some c) as [c Hcb].
  { destruct (nnth (ser u) (username_end u)) eqn:E; [eexists; reflexivity|].
    unfold nnth in E. apply nth_error_None in E. unfold nlen in *. lia. }
  rewrite (nskipn_cons_of_nnth _ _ _ Hcb). set (rest := nskipn (username_end u + 1) (ser u)).
  unfold with_username. fold a.
  destruct (af_userinfo F) as [[U1 U2]|[(U1 & U2 & U3 & U4)|(U1 & U2 & U3 & U4)]]; rewrite U2.
  - (* no userinfo before: c is the first byte of the host *)
    assert (c <> 58) as C1 by (intros ->; apply byte_eqb_true_iff in Hcb; congruence).
    assert (c <> 64) as C2 by (intros ->; apply byte_eqb_true_iff in Hcb; rewrite U1 in Hcb; congruence).
    (* c is neither '@' nor ':': both matches on c take their last branch; seen by running through the bits of c *)
    match goal with |- context [if a + nlen enc =? a then ?X else ?Y] =>
      replace X with ((nfirstn a (ser u) ++ enc) ++ c :: rest, username_end u, a + nlen enc)
        by (clear - C1 C2; destruct c as [|p]; [reflexivity|]; do 7 (try (destruct p as [p|p|]; try reflexivity)); congruence);
      replace Y with ((nfirstn a (ser u) ++ enc) ++ [64] ++ c :: rest, username_end u, a + nlen enc + 1)
        by (clear - C1 C2; destruct c as [|p]; [reflexivity|]; do 7 (try (destruct p as [p|p|]; try reflexivity)); congruence)
    end.
    clearbody enc. destruct enc as [|e0 E0].
    + change (nlen (@nil N)) with 0. rewrite N.add_0_r, N.eqb_refl. cbn beta iota zeta.
      apply (splice_offsets dbg u a (username_end u) ([] ++ [])); try lia; try assumption;
        [rewrite app_nil_r, (nskipn_cons_of_nnth _ _ _ Hcb); reflexivity | change (nlen ([] ++ [])) with 0; lia | rewrite U1; reflexivity].
    + replace (a + nlen (e0 :: E0) =? a) with false by (rewrite nlen_cons; lia). cbn beta iota zeta.
      apply (splice_offsets dbg u a (username_end u) ((e0 :: E0) ++ [64])); try lia; try assumption;
        [rewrite (nskipn_cons_of_nnth _ _ _ Hcb), <- !app_assoc; reflexivity | rewrite nlen_app; change (nlen [64]) with 1; lia | rewrite U1; reflexivity].
  - (* a password follows: c = ':' *)
    assert (c = 58) as -> by (apply byte_eqb_nnth in U2; congruence).
    assert ((if a + nlen enc =? a then ((nfirstn a (ser u) ++ enc) ++ 58 :: rest, username_end u, a + nlen enc)
             else ((nfirstn a (ser u) ++ enc) ++ 58 :: rest, username_end u, a + nlen enc))
            = ((nfirstn a (ser u) ++ enc) ++ 58 :: rest, username_end u, a + nlen enc)) as -> by (destruct (_ =? _); reflexivity).
    cbn beta iota zeta.
    apply (splice_offsets dbg u a (username_end u) (enc ++ [])); try lia; try assumption;
      [rewrite app_nil_r, (nskipn_cons_of_nnth _ _ _ Hcb), <- app_assoc; reflexivity | rewrite app_nil_r; reflexivity | reflexivity].
  - (* a username only: c = '@', dropped with an empty new username *)
    assert (c = 64) as -> by (apply byte_eqb_nnth in U3; congruence).
    clearbody enc. destruct enc as [|e0 E0].
    + change (nlen (@nil N)) with 0. rewrite N.add_0_r, N.eqb_refl. cbn beta iota zeta.
      apply (splice_offsets dbg u a (username_end u + 1) ([] ++ [])); try lia; try assumption;
        [cbn [app]; rewrite app_nil_r; reflexivity | change (nlen ([] ++ [])) with 0; lia | rewrite U4; reflexivity].
    + replace (a + nlen (e0 :: E0) =? a) with false by (rewrite nlen_cons; lia). cbn beta iota zeta.
      apply (splice_offsets dbg u a (username_end u) (e0 :: E0)); try lia; try assumption;
        [rewrite (nskipn_cons_of_nnth _ _ _ Hcb), <- app_assoc; reflexivity |].
      rewrite U4. symmetry. apply cred_splice_next; try assumption; lia.
Qed.

Theorem set_username_ok dbg u un : wf_b u = true -> host_text_ok u ->
  exists u' st, set_username dbg u un = Some (u', st)
  /\ (st <> SOk -> u' = u)
  /\ (st = SOk ->
      wf_b u' = true /\ host_text_ok u' /\ scheme u' = scheme u /\ password dbg u' = password dbg u
      /\ host_str u' = host_str u /\ port u' = port u /\ same_back dbg u u'
      /\ exists cur, username dbg u = Some cur
         /\ username dbg u' = Some (if list_eqb cur (utf8_encode un) then cur else userinfo_enc un)).
Proof.
  intros W HT. destruct (chcp_eval u W) as (c & Ec & Hc). destruct c.
  { exists u, SErrUnit. unfold set_username. rewrite Ec. split; [reflexivity|]. split; [reflexivity | discriminate]. }
  specialize (Hc eq_refl). rewrite (set_username_eval dbg u un W HT Hc Ec).
  set (cur := nfirstn (username_end u - (scheme_end u + 3)) (nskipn (scheme_end u + 3) (ser u))).
  assert (username dbg u = Some cur) as Ecur.
  { rewrite (username_eval dbg u W). unfold piece. cbn [pidx]. rewrite (has_host_authority u W Hc). reflexivity. }
  eexists; eexists; split; [reflexivity|]. split; [intros X; contradiction|]. intros _.
  destruct (list_eqb cur (utf8_encode un)) eqn:Eeq.
  - splits; try assumption; try reflexivity; try apply same_back_refl. exists cur. rewrite Eeq. split; exact Ecur.
  - destruct (with_username_ok dbg u (userinfo_enc un) W HT Hc) as (R1 & R2 & R3 & R4 & R5 & R6 & R7 & R8).
    splits; try assumption. exists cur. rewrite Eeq. split; assumption.
Qed.
