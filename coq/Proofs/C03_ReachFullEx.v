(* Proofs/C03_ReachFullEx.v - non-vacuity of C03_reachability_full: host functions that meet all five hypotheses
   (HostWf, host_nonempty, IpWf, HostOK, IpOKv) and a history of C02's Reachable3 with a query_pairs_mut session, a
   path_segments_mut session on an authority-less record, a path setter and a join. *)
From Coq Require Import String.
From RU Require Import Base.Prelude Model.HostT Model.UrlRecord Model.Parser Model.Setters Model.WF Model.FormUrlencoded
  Model.QueryPairs Proofs.C02_Reach Proofs.C02_AuthMain Proofs.C02_SetHostCanon Proofs.C02_Reach3 Proofs.C05_Enc
  Proofs.C05_Parser Proofs.C05_Alphabet Proofs.C03_ReachParts Proofs.C03_ReachHost Proofs.C03_ReachEx Proofs.C03_AuthEnd
  Proofs.C03_ReachKnown.
Open Scope string_scope.
Open Scope N_scope.
Open Scope list_scope.

Lemma ex3_full_hyps :
  HostWf ex_hp3 ex_hp ex_hd2 /\ host_nonempty ex_hp3 ex_hp /\ IpWf ex_hd2 /\ HostOK ex_hp3 ex_hp ex_hd2 /\ IpOKv ex_hd2.
Proof.
  destruct ex3_hyps as ((HRT & _) & HNE & HIP).
  assert (forall s h, ex_hp s = Ok h -> Forall ok_byte (ex_hd2 h)) as G.
  { intros s h E. unfold ex_hp in E. destruct s as [|c r]; [inversion E; constructor|].
    destruct (forallb ex_hostc (c :: r)) eqn:F; inversion E; subst. cbn [ex_hd2].
    rewrite forallb_forall in F. apply Forall_forall. intros x Hx. specialize (F x Hx).
    unfold ex_hostc, is_alnum, is_alpha, is_lower, is_upper, is_digit in F. unfold ok_byte. lia. }
  split; [exact (HostRT_HostWf _ _ _ HRT)|]. split; [split; [exact HNE|]|split; [exact HIP|split]].
  - intros s _ H. unfold ex_hp in H. destruct s as [|c r]; [reflexivity|].
    destruct (forallb ex_hostc (c :: r)); inversion H.
  - intros h [->|[[s Hs]|[s Hs]]]; [constructor | | exact (G s h Hs)].
    destruct s as [|c r]; [discriminate Hs | exact (G (c :: r) h Hs)].
  - intros h Hh. destruct h as [d|a|p]; [destruct Hh | |]; cbn [ex_hd2]; repeat constructor; unfold ok_byte; lia.
Qed.

(* parse "a:/p?x=1"; query_pairs_mut().append_pair("k", "v w") -> a:/p?x=1&k=v+w; path_segments_mut: pop, push "",
   push "b/c" -> a:/b%2Fc?x=1&k=v+w (never "//"); set_path "/d" ; join "e" -> a:/e *)
Definition reach3_example_stmt : Prop :=
  exists u, Reachable3 true ex_hp3 ex_hp ex_hd2 u /\ ser u = B "a:/e".


Ltac kfd := vm_compute; reflexivity.

Lemma reach3_example : reach3_example_stmt.
Proof.
  destruct (parse_url true ex_hp3 ex_hp ex_hd2 None None (B "a:/p?x=1")) as [u0| |] eqn:E0;
    [|vm_compute in E0; discriminate ..].
  assert (Known_file_drive u0 = false -> Reachable3 true ex_hp3 ex_hp ex_hd2 u0) as R0
    by (apply (R3_parse true ex_hp3 ex_hp ex_hd2 None (B "a:/p?x=1") u0); [usv_tac | exact E0]).
  vm_compute in E0. injection E0 as <-. specialize (R0 ltac:(kfd)).
  (* query_pairs_mut *)
  match type of R0 with Reachable3 ?d ?hp ?hpo ?hd ?u =>
    destruct (query_pairs_session d u [OpAppendPair (B "k") (B "v w")]) as [u1|] eqn:E1; [|vm_compute in E1; discriminate];
    assert (Known_file_drive u1 = false -> Reachable3 d hp hpo hd u1) as R1
      by (apply (R3_qpm d hp hpo hd u [OpAppendPair (B "k") (B "v w")] u1 R0);
          [constructor; [split; usv_tac | constructor] | exact E1])
  end.
  vm_compute in E1. injection E1 as <-. specialize (R1 ltac:(kfd)). clear R0.
  hist_step R3_step (OPathSegments [PPop; PPush []; PPush (B "b/c")]) ltac:(repeat constructor; cbn [psm_op_usv]; usv_tac).
  hist_step R3_step (OSetPath (B "/d")) usv_tac.
  (* join *)
  match goal with R3 : Reachable3 ?d ?hp ?hpo ?hd ?b |- _ =>
    destruct (parse_url d hp hpo hd None (Some b) (B "e")) as [u4| |] eqn:E4; [|vm_compute in E4; discriminate ..];
    assert (Known_file_drive u4 = false -> Reachable3 d hp hpo hd u4) as R4
      by (apply (R3_join d hp hpo hd None b (B "e") u4 R3); [usv_tac | exact E4])
  end.
  vm_compute in E4. injection E4 as <-. specialize (R4 ltac:(kfd)).
  eexists. split; [exact R4 | vm_compute; reflexivity].
Qed.

(* the formulation over C02_Reach.Reachable with HostWf alone (C03_reachability_full_statement) is false: *)
(* a Host::parse that returns the empty host for the non-empty text "x" (url::Host never does: it fails with
   EmptyHost) meets HostWf; with it set_host(Some "x") on "http://h:81/" - a call outside known_step, whose
   argument is not empty - stores the empty host in front of the port: "http://:81/" is not wf_b *)
Definition bad_hp2 (s : list N) : result host := if list_eqb s (B "x") then Ok (HDomain []) else ex_hp s.

Lemma bad_hp2_wf : HostWf bad_hp2 ex_hp ex_hd.
Proof.
  destruct ex_host_wf as (A & B0 & C). split; [|split; [exact B0 | exact C]].
  intros s h H Hne. unfold bad_hp2 in H. destruct (list_eqb s (B "x")); [inversion H; subst; contradiction | exact (A s h H Hne)].
Qed.

Lemma full_statement_witness : exists u, Reachable true bad_hp2 ex_hp ex_hd u /\ wf_b u = false.
Proof.
  destruct (parse_url true bad_hp2 ex_hp ex_hd None None (B "http://h:81/")) as [u0| |] eqn:E0;
    [|vm_compute in E0; discriminate ..].
  assert (Known_file_drive u0 = false -> Reachable true bad_hp2 ex_hp ex_hd u0) as R0
    by (apply (R_parse true bad_hp2 ex_hp ex_hd None (B "http://h:81/") u0); [usv_tac | exact E0]).
  vm_compute in E0. injection E0 as <-. specialize (R0 ltac:(kfd)).
  hist_step R_step (OSetHost (Some (B "x"))) usv_tac.
  match goal with R : Reachable _ _ _ _ ?u |- _ => exists u; split; [exact R | vm_compute; reflexivity] end.
Qed.

