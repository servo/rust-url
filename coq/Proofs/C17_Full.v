(* Proofs/C17_Full.v - C17 for every opaque-path data: URL outside the classes K2 and K3 of Known_C17
   (Model/KnownC17.v: k17_query_space, k17_split_escape), header with or without '?'.  First the '?' case of the serialization (path part / query part of the header, the body is
   in the URL's query), then the assembly shared by both cases. *)
From RU Require Import Base.Prelude Base.Utf8 Base.Utf8Facts Gen.Tables Model.PercentEncoding
  Model.UrlRecord Model.Parser Model.Mime Model.DataUrl Model.DataUrlTie Model.KnownC17
  Spec.Fetch
  Proofs.ListN Proofs.C14_Enc Proofs.C02_Enc Proofs.C02_Parts Proofs.C02_Opaque
  Proofs.C18_BodyRef Proofs.C18_Spec
  Proofs.C17_Total Proofs.C17_Decode Proofs.C17_Bridge Proofs.C17_Fragment
  Proofs.C17_Body Proofs.C17_BodyUrl Proofs.C17_Header Proofs.C17_HeaderQ
  Proofs.C17_Partial.

Local Notation nt := C02_Enc.not_tnl.

(* the opaque path ends at the first '?' *)
Lemma cbb_stop P X : ~ In 63 P -> ~ In 35 P ->
  cbb_chars (P ++ 63 :: X) = strip_tnl P /\ cbb_rest (P ++ 63 :: X) = 63 :: X.
Proof.
  induction P as [|c r IH]; intros H1 H2.
  - cbn [app cbb_chars cbb_rest strip_tnl filter]. change (is_tnl 63) with false. change (is_qh 63) with true. split; reflexivity.
  - assert (Hq : is_qh c = false).
    { unfold is_qh. destruct (c =? 63) eqn:E1; [apply N.eqb_eq in E1; exfalso; apply H1; left; exact E1|].
      destruct (c =? 35) eqn:E2; [apply N.eqb_eq in E2; exfalso; apply H2; left; exact E2|]. reflexivity. }
    destruct IH as [I1 I2]; [intros Hin; apply H1; right; exact Hin|intros Hin; apply H2; right; exact Hin|].
    cbn [app cbb_chars cbb_rest]. unfold strip_tnl. cbn [filter]. unfold C02_Enc.not_tnl at 1.
    destruct (is_tnl c); cbn [negb]; [split; assumption|]. rewrite Hq. fold (strip_tnl r). rewrite I1. split; [reflexivity|exact I2].
Qed.

Lemma clean_body_header Qc Rc : ~ In 35 Qc -> clean_body (Qc ++ 44 :: Rc) = strip_tnl Qc ++ 44 :: clean_body Rc.
Proof.
  induction Qc as [|c r IH]; intros Hn.
  - cbn [app]. rewrite clean_body_cons. reflexivity.
  - cbn [app]. rewrite clean_body_cons.
    destruct (c =? 35) eqn:E; [apply N.eqb_eq in E; exfalso; apply Hn; left; exact E|].
    unfold strip_tnl. cbn [filter]. unfold C02_Enc.not_tnl at 1. change (is_tnl c) with (k17_tnl c).
    rewrite IH by (intros Hin; apply Hn; right; exact Hin).
    destruct (k17_tnl c); reflexivity.
Qed.

Lemma notin_utf8 c s : c < 128 -> ~ In c s -> ~ In c (utf8_encode s).
Proof. intros Hc Hn Hin. apply Hn. exact (utf8_encode_low s c Hin Hc). Qed.

(* the serialization when the header has a '?' *)
Theorem header_serialized_q dbg hp ho hd s rem u h B : usv_list s ->
  parse_scheme CUrlParser (input_new_trim_c0 s) = Some (s_data, rem) -> inp_split_prefix_char 47 rem = None ->
  parse_url dbg hp ho hd None None s = POk u ->
  find_comma_before_fragment (utf8_encode rem) = Ok (Some (h, B)) ->
  In 63 h ->
  exists a q encodedBody,
    filter nt h = a ++ 63 :: q /\ ~ In 63 a
    /\ collect_until_comma (skipn 5 (url_without_fragment u))
       = (encode T_CONTROLS a ++ 63 :: encode T_QUERY q, Some encodedBody)
    /\ string_percent_decode encodedBody = percent_decode (clean_body B).
Proof.
  intros Hs Hp H47 Hu HB Hq.
  destruct (parse_opaque_explicit dbg hp ho hd s s_data rem u Hs Hp scheme_type_of_data H47 Hu) as [Hur ->].
  rewrite opaque_url_without_fragment.
  destruct (comma_split rem h B Hur HB) as (Hc & Rc & Er & Eh & EB & Hnc & Hc35 & Uh & Ur).
  assert (Hc63 : In 63 Hc) by (rewrite Eh in Hq; exact (utf8_encode_low Hc 63 Hq ltac:(lia))).
  destruct (split_first 63 Hc Hc63) as (P & Qc & EHc & HP63).
  assert (UPQ : usv_list P /\ usv_list Qc).
  { rewrite EHc in Uh. apply usv_app in Uh. destruct Uh as [U1 U2]. apply usv_cons in U2. tauto. }
  destruct UPQ as [UP UQ].
  assert (HP35 : ~ In 35 P) by (intros Hin; apply Hc35; rewrite EHc; apply in_or_app; left; exact Hin).
  assert (HQ35 : ~ In 35 Qc) by (intros Hin; apply Hc35; rewrite EHc; apply in_or_app; right; right; exact Hin).
  assert (HP44 : ~ In 44 P) by (intros Hin; apply Hnc; rewrite EHc; apply in_or_app; left; exact Hin).
  assert (HQ44 : ~ In 44 Qc) by (intros Hin; apply Hnc; rewrite EHc; apply in_or_app; right; right; exact Hin).
  exists (utf8_encode (strip_tnl P)), (utf8_encode (strip_tnl Qc)),
         (encode T_QUERY (utf8_encode (clean_body Rc))).
  split.
  { rewrite Eh, EHc, utf8_encode_app, utf8_cons, encode1_ascii by lia. cbn [app].
    rewrite filter_app. cbn [filter]. change (nt 63) with true. cbv iota.
    rewrite !filter_not_tnl_utf8 by assumption. reflexivity. }
  split.
  { apply notin_utf8; [lia|]. intros Hin. apply HP63. unfold strip_tnl in Hin. apply filter_In in Hin. tauto. }
  (* the serialization *)
  assert (Erem : rem = P ++ 63 :: (Qc ++ 44 :: Rc)) by (rewrite Er, EHc, <- app_assoc; reflexivity).
  destruct (cbb_stop P (Qc ++ 44 :: Rc) HP63 HP35) as [C1 C2].
  unfold opaque_pre. rewrite <- !app_assoc. change (s_data ++ [58] ++ ?x) with ([100;97;116;97;58] ++ x).
  cbn [app skipn]. unfold opaque_of. rewrite Erem, C1, C2.
  unfold pqf_q. rewrite inp_next_cons by reflexivity. change (63 =? 63) with true. cbn [qf_qtext].
  unfold query_of. change (query_set STNotSpecial) with T_QUERY.
  rewrite query_chars_clean, clean_body_header by exact HQ35.
  rewrite enc_utf8_app, utf8_cons, encode1_ascii by lia. cbn [app]. rewrite encode_cons.
  change (enc1 T_QUERY 44) with [44]. cbn [app].
  split.
  { change (encode T_CONTROLS (utf8_encode (strip_tnl P)) ++ 63 :: encode T_QUERY (utf8_encode (strip_tnl Qc)) ++ 44 :: encode T_QUERY (utf8_encode (clean_body Rc)))
      with (encode T_CONTROLS (utf8_encode (strip_tnl P)) ++ (63 :: encode T_QUERY (utf8_encode (strip_tnl Qc))) ++ 44 :: encode T_QUERY (utf8_encode (clean_body Rc))).
    rewrite app_assoc. apply collect_until_comma_app. intros Hin. apply in_app_or in Hin.
    destruct Hin as [Hin|[Hin|Hin]]; [|discriminate Hin|].
    - revert Hin. apply encode_no_comma; [apply usv_strip_k; exact UP|].
      intros Hin. apply HP44. unfold strip_tnl in Hin. apply filter_In in Hin. tauto.
    - revert Hin. apply encode_no_comma; [apply usv_strip_k; exact UQ|].
      intros Hin. apply HQ44. unfold strip_tnl in Hin. apply filter_In in Hin. tauto. }
  (* the body *)
  assert (Ucb : usv_list (clean_body Rc)).
  { unfold clean_body. unfold usv_list in *. rewrite Forall_forall in *. intros x Hx. apply filter_In in Hx.
    destruct Hx as [Hx _]. pose proof (usv_before_hash Rc) as Hbh. unfold usv_list in Hbh. rewrite !Forall_forall in Hbh.
    exact (Hbh Ur x Hx). }
  unfold string_percent_decode.
  rewrite utf8_encode_ascii by (apply encode_ascii; apply utf8_encode_bytes; exact Ucb).
  rewrite (decode_encode _ _ blind_QUERY (utf8_encode_bytes _ Ucb)), EB, clean_body_utf8 by exact Ur. reflexivity.
Qed.

(* the assembly, given the three facts about the serialization: the split collect_until_comma makes,
   header_of h = fetch_header of its first part, and the percent-decoding of its second part *)
Lemma assemble dbg hp ho hd s rem u h B mt eb : usv_list s ->
  parse_scheme CUrlParser (input_new_trim_c0 s) = Some (s_data, rem) -> inp_split_prefix_char 47 rem = None ->
  parse_url dbg hp ho hd None None s = POk u ->
  find_comma_before_fragment (utf8_encode rem) = Ok (Some (h, B)) ->
  collect_until_comma (skipn 5 (url_without_fragment u)) = (mt, Some eb) ->
  header_of h = fetch_header mt ->
  string_percent_decode eb = fst (body_ref B) ->
  fetch_view (process_and_decode s) = fetch_of_url u.
Proof.
  intros Hs Hp H47 Hu Hr Hc Hh Hbody.
  pose proof (pretend_parse_is_parse_scheme s rem Hs Hp) as HA.
  destruct (parse_opaque_explicit dbg hp ho hd s s_data rem u Hs Hp scheme_type_of_data H47 Hu) as [Hur Eu].
  assert (Hdata : url_is_data u = true) by (rewrite Eu; apply url_is_data_opaque).
  unfold fetch_of_url. rewrite Hdata. unfold fetch_of_serialization.
  destruct (find_comma_bytes _ _ _ (utf8_encode_bytes rem Hur) Hr) as [Hbh HbB].
  pose proof (parse_header_std h Hbh) as Hph.
  pose proof (process_and_decode_eval s _ h B _ _ HA Hr Hph) as Hpd.
  rewrite fetch_process_alt_eq. unfold fetch_process_alt. rewrite remove_data_colon_skipn. cbn [length].
  rewrite Hc, Hbody, <- Hh.
  rewrite decode_to_vec_ref in Hpd. unfold decoded_ref in Hpd. cbn [du_base64 du_encoded_body_plus_fragment] in Hpd.
  destruct (body_ref B) as [out fragment] eqn:Ebr. cbn [fst].
  destruct (snd (header_of h)) eqn:Eb64.
  - pose proof (decode_to_vec_is_infra out) as HI. rewrite <- HI.
    destruct (Model.Base64.decode_to_vec out) as [v|e].
    + pose proof (fragment_is_url_fragment dbg hp ho hd s rem u Hs Hp H47 Hu _ _ _ _ Hpd) as Hf.
      rewrite Hpd. cbn [fetch_view]. rewrite record_of_std, Hf. reflexivity.
    + rewrite Hpd. reflexivity.
  - pose proof (fragment_is_url_fragment dbg hp ho hd s rem u Hs Hp H47 Hu _ _ _ _ Hpd) as Hf.
    rewrite Hpd. cbn [fetch_view]. rewrite record_of_std, Hf. reflexivity.
Qed.

(* every opaque-path data: URL outside K2 and K3.  The class hypothesis is on the crate's own split
   (find_comma_before_fragment); C17_Known.v derives it from the computable class known_c17. *)
Theorem opaque_is_fetch dbg hp ho hd s rem u : usv_list s ->
  parse_scheme CUrlParser (input_new_trim_c0 s) = Some (s_data, rem) -> inp_split_prefix_char 47 rem = None ->
  parse_url dbg hp ho hd None None s = POk u ->
  (forall h B, find_comma_before_fragment (utf8_encode rem) = Ok (Some (h, B)) ->
               k17_query_space (filter nt h) = false /\ k17_split_escape B = false) ->
  fetch_view (process_and_decode s) = fetch_of_url u.
Proof.
  intros Hs Hp H47 Hu Hcls.
  destruct (parse_opaque_explicit dbg hp ho hd s s_data rem u Hs Hp scheme_type_of_data H47 Hu) as [Hur Eu].
  destruct (find_comma_total (utf8_encode rem) (utf8_encode_after_ascii rem Hur)) as [r [Hr _]].
  destruct r as [[h B]|].
  - destruct (Hcls h B Hr) as [Hk2 Hk3].
    destruct (find_comma_bytes _ _ _ (utf8_encode_bytes rem Hur) Hr) as [Hbh HbB].
    destruct (find_comma_spec _ _ _ Hr) as (Hsplit & Hn44 & Hn35).
    destruct (in_dec N.eq_dec 63 h) as [Hq|Hq].
    + destruct (header_serialized_q dbg hp ho hd s rem u h B Hs Hp H47 Hu Hr Hq) as (a & q & eb & Hx & Ha & Hc & Hbody).
      apply (assemble dbg hp ho hd s rem u h B _ eb Hs Hp H47 Hu Hr Hc).
      * exact (header_bytes_q h a q Hbh Hn35 Hx Ha Hk2).
      * rewrite Hbody. symmetry. exact (body_ref_is_percent_decode (length B) B (Nat.le_refl _) Hk3).
    + destruct (opaque_noq_serialized dbg hp ho hd s rem u h B Hs Hp H47 Hu Hr Hq) as (eb & Hc & Hbody).
      exact (assemble dbg hp ho hd s rem u h B _ eb Hs Hp H47 Hu Hr Hc (header_bytes h Hbh Hq) (Hbody Hk3)).
  - (* no comma *)
    pose proof (pretend_parse_is_parse_scheme s rem Hs Hp) as HA.
    assert (Hdata : url_is_data u = true) by (rewrite Eu; apply url_is_data_opaque).
    unfold fetch_of_url. rewrite Hdata. unfold fetch_of_serialization.
    rewrite (no_comma_is_fetch_failure dbg hp ho hd s rem u Hs Hp H47 Hu Hr).
    unfold process_and_decode, process_and_decode_bytes, process_bytes. rewrite HA. cbn [bind]. rewrite Hr. reflexivity.
Qed.

(* without a '?' in the header K2 cannot apply *)
Lemma no_qmark_no_query_space l : ~ In 63 l -> k17_query_space l = false.
Proof.
  intros Hn. unfold k17_query_space. replace (k17_after_qmark l) with (@None (list N)); [reflexivity|].
  induction l as [|c r IH]; [reflexivity|]. cbn [k17_after_qmark].
  destruct (c =? 63) eqn:E; [apply N.eqb_eq in E; exfalso; apply Hn; left; exact E|].
  apply IH. intros Hin. apply Hn. right. exact Hin.
Qed.

(* opaque_is_fetch for headers without '?' (Properties/C17.v: C17_partial) *)
Theorem opaque_noq_is_fetch dbg hp ho hd s rem u : usv_list s ->
  parse_scheme CUrlParser (input_new_trim_c0 s) = Some (s_data, rem) -> inp_split_prefix_char 47 rem = None ->
  parse_url dbg hp ho hd None None s = POk u ->
  (forall h B, find_comma_before_fragment (utf8_encode rem) = Ok (Some (h, B)) ->
               ~ In 63 h /\ k17_split_escape B = false) ->
  fetch_view (process_and_decode s) = fetch_of_url u.
Proof.
  intros Hs Hp H47 Hu Hcls. apply (opaque_is_fetch dbg hp ho hd s rem u Hs Hp H47 Hu).
  intros h B Hr. destruct (Hcls h B Hr) as [Hq Hk]. split; [|exact Hk].
  apply no_qmark_no_query_space. intros Hin. apply filter_In in Hin. tauto.
Qed.
