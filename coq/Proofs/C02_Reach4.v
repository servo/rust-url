(* Proofs/C02_Reach4.v - the histories of C02_Reach3.ReachC2 extended by the mutators whose L2 is proved in
   C02_SetHostCanon / C02_SetScheme / C02_SetPath:
     set_ip_host, set_host(Some _), set_scheme, quirks set_protocol            on every Canon record,
     set_path, quirks set_pathname                                              on Canon records with an authority,
   each outside the known step classes (known_step2 = false).  ReachC3: every record of such a history is Canon,
   hence a fixpoint of re-parsing.  One more hypothesis on the host functions than HostOK2: host_nonempty.
   Also here: statement3_refuted and statement_refuted, C02_statement3 and C02_Hist.C02_statement are FALSE - their
   quantifiers miss the class F-C07-8 (quirks::set_host with an empty host on a URL that has a password and no
   username; Known_F_C02_10 in C02_Stmt4): witness on the host model. *)
From RU Require Import Proofs.C15_Ser.
From Coq Require Import String.
From RU Require Import Base.Prelude Base.Utf8 Gen.Tables Model.PercentEncoding Model.HostT Model.Host Model.UrlRecord
  Model.Parser Model.WF Model.QueryPairs Proofs.C02_Parts Proofs.C02_Reach Proofs.C02_AuthParts Proofs.C02_AuthMain
  Proofs.C02_Hist Proofs.C02_Canon Proofs.C02_JoinTail Proofs.C02_ReachPartial Proofs.C02_Form Proofs.C02_Reach3
  Proofs.C02_SetHostCanon Proofs.C02_SetScheme Proofs.C02_SetPath Proofs.C16_RT6Model Proofs.C02_HistInst.
Open Scope N_scope.
Open Scope list_scope.

(* the mutators with a proved L2, given the record they are applied to *)
Definition canon_op3 (u : url) (o : op) : bool :=
  match o with
  | OSetIpHost _ | OSetHost (Some _) | OSetScheme _ | OQProtocol _ => true
  | OSetPath _ | OQPathname _ => has_authority_b u
  | _ => canon_op o
  end.

Lemma canon_op_3 u o : canon_op o = true -> canon_op3 u o = true.
Proof. destruct o; try discriminate; intros _; reflexivity. Qed.

Section ReachC3.
Variable dbg : bool.
Variable hp hpo : list N -> result host.
Variable hd : host -> list N.
Hypothesis HOK : HostOK2 hp hpo hd.
Hypothesis HNE : host_nonempty hp hpo.

Let HRT : HostRT hp hpo hd := proj1 HOK.
Let HAb : host_above hp hpo hd := proj1 (proj2 HOK).
Let HIP : ip_clause hp hpo hd := proj2 (proj2 HOK).

Inductive ReachC3 : url -> Prop :=
| RC3_parse ovr input u :
    usv_list input -> nonfile_input input = true -> (ovr = None \/ special_input input = false) ->
    parse_url dbg hp hpo hd ovr None input = POk u -> ReachC3 u
| RC3_join ovr b input u :
    ReachC3 b -> usv_list input -> tail_ref input = true ->
    (ovr = None \/ st_is_special (scheme_type_of (b_scheme b)) = false) ->
    parse_url dbg hp hpo hd ovr (Some b) input = POk u -> ReachC3 u
| RC3_step u o u' :
    ReachC3 u -> canon_op3 u o = true -> op_args_ok o -> known_step2 dbg hp hpo hd u o = false ->
    apply_op dbg hp hpo hd u o = Some u' -> nlen (ser u') <= U32_MAX_P -> ReachC3 u'
| RC3_qpm u ops u' :
    ReachC3 u -> Forall op_ok ops -> query_pairs_session dbg u ops = Some u' ->
    nlen (ser u') <= U32_MAX_P -> ReachC3 u'.

Lemma ReachC2_C3 u : ReachC2 dbg hp hpo hd u -> ReachC3 u.
Proof.
  induction 1 as [ovr input u Hu Hn Hov Hp | ovr b input u Hr IH Hu Ht Hov Hp | u o u' Hr IH Ht Ha Ho Hb
                 | u ops u' Hr IH Hops Hs Hb].
  - exact (RC3_parse ovr input u Hu Hn Hov Hp).
  - exact (RC3_join ovr b input u IH Hu Ht Hov Hp).
  - exact (RC3_step u o u' IH (canon_op_3 u o Ht) Ha (canon_op_not_known dbg hp hpo hd u o Ht) Ho Hb).
  - exact (RC3_qpm u ops u' IH Hops Hs Hb).
Qed.

Lemma canon_op3_step u o u' : Canon hp hpo hd u -> canon_op3 u o = true -> op_args_ok o ->
  known_step2 dbg hp hpo hd u o = false -> apply_op dbg hp hpo hd u o = Some u' -> nlen (ser u') <= U32_MAX_P ->
  Canon hp hpo hd u'.
Proof.
  intros C Ht Ha Hk Ho Hb.
  destruct (canon_op o) eqn:Ec; [exact (canon_op_step dbg hp hpo hd HOK u o u' C Ec Ha Ho Hb)|].
  destruct o; try discriminate Ec; try discriminate Ht; cbn [apply_op op_args_ok canon_op3] in *.
  - exact (set_path_Canon dbg hp hpo hd u p u' C Ht Ha Ho Hb).
  - destruct h as [x|]; [|discriminate Ht].
    destruct (option_map_fst_some _ _ Ho) as [s Es].
    exact (set_host_some_Canon dbg hp hpo hd HRT HAb u x u' s HNE C Ha Hk Es Hb).
  - destruct (option_map_fst_some _ _ Ho) as [s Es].
    exact (set_ip_host_Canon dbg hp hpo hd HRT HAb u h u' s HIP C Ha Hk Es Hb).
  - destruct (option_map_fst_some _ _ Ho) as [s0 Es].
    exact (set_scheme_Canon dbg hp hpo hd u s u' s0 C Es Hb).
  - destruct (option_map_fst_some _ _ Ho) as [s0 Es].
    exact (q_set_protocol_Canon dbg hp hpo hd u s u' s0 C Es Hb).
  - exact (q_set_pathname_Canon dbg hp hpo hd u s u' C Ht Ha Ho Hb).
Qed.

Theorem ReachC3_Canon u : ReachC3 u -> Canon hp hpo hd u.
Proof.
  induction 1 as [ovr input u Hu Hn Hov Hp | ovr b input u Hr IH Hu Ht Hov Hp | u o u' Hr IH Ht Ha Hk Ho Hb
                 | u ops u' Hr IH Hops Hs Hb].
  - exact (parse_Canon dbg hp hpo hd HRT ovr input u HAb Hu Hn Hov Hp).
  - exact (join_tail_Canon dbg hp hpo hd HRT ovr b input u IH Hu Ht Hov Hp).
  - exact (canon_op3_step u o u' IH Ht Ha Hk Ho Hb).
  - exact (qpm_Canon dbg hp hpo hd HRT u ops u' IH Hops Hs Hb).
Qed.
End ReachC3.

Lemma enc_utf8_nil_inv S x : encode S (utf8_encode x) = [] -> x = [].
Proof.
  destruct x as [|c r]; [reflexivity|]. unfold utf8_encode. cbn [flat_map]. unfold utf8_encode1.
  destruct (c <? 128); [|destruct (c <? 2048); [|destruct (c <? 65536)]]; cbn [app]; unfold encode; cbn [flat_map];
    match goal with |- context [if ?b then _ else _] => destruct b end; unfold enc_byte_spec; cbn [app]; discriminate.
Qed.

Lemma host_nonempty_model idna : host_nonempty (host_parse idna) host_parse_opaque.
Proof.
  split.
  - intros s H. unfold host_parse, host_parse_x in H.
    destruct (Host.starts_with 91 s).
    + unfold bracketed in H. destruct (negb (ends_with 93 s)); [discriminate H|].
      destruct (parse_ipv6addr (utf8_encode (removelast (tl s)))); cbn [xr_map xr_result] in H; discriminate H.
    + destruct (idna (decode (utf8_encode s))) as [[|c d]|]; [discriminate H | | discriminate H].
      destruct (ends_in_a_number (c :: d)); [|discriminate H].
      destruct (parse_ipv4addr (c :: d)); cbn [xr_map xr_result] in H; discriminate H.
  - intros s Hu H. unfold host_parse_opaque, host_parse_opaque_x in H.
    destruct (Host.starts_with 91 s).
    + unfold bracketed in H. destruct (negb (ends_with 93 s)); [discriminate H|].
      destruct (parse_ipv6addr (utf8_encode (removelast (tl s)))); cbn [xr_map xr_result] in H; discriminate H.
    + destruct (existsb is_invalid_host_char s); [discriminate H|]. cbn [xr_result] in H.
      assert (pe_display T_CONTROLS (utf8_encode s) = []) as E by congruence.
      rewrite pe_display_utf8 in E by exact Hu. exact (enc_utf8_nil_inv _ _ E).
Qed.

(* non-vacuity, on the host model (idna_clean) *)
Definition mhp := host_parse idna_clean.
Definition m_hist (start : string) (ops : list op) : option url :=
  match parse_url true mhp host_parse_opaque host_display None None (B start) with
  | POk u => fold_left (fun acc o => match acc with Some v => apply_op true mhp host_parse_opaque host_display v o | None => None end) ops (Some u)
  | _ => None
  end.
Definition m_fix (u : url) : bool :=
  match parse_url true mhp host_parse_opaque host_display None None (utf8_lossy (ser u)) with POk v => url_eqb v u | _ => false end.

(* http://u@h.x:443/a?q#f -> set_scheme("https") [port 443 becomes the default and is dropped] -> set_host("example.org:99")
   [the port part is ignored] -> set_path("b c/../d?e") -> set_ip_host(127.0.0.1) -> quirks pathname("x") ;
   a:/p -> set_host("h") = a://h/p -> set_scheme("b") -> set_ip_host([::1]) ; each record is a fixpoint *)
Example reach3_example :
  match m_hist "http://u@h.x:443/a?q#f" [OSetScheme (B "https")] with
  | Some u => list_eqb (ser u) (B "https://u@h.x/a?q#f") && m_fix u | None => false end = true
  /\ match m_hist "http://u@h.x:443/a?q#f" [OSetScheme (B "https"); OSetHost (Some (B "example.org:99"))] with
     | Some u => list_eqb (ser u) (B "https://u@example.org/a?q#f") && m_fix u | None => false end = true
  /\ match m_hist "http://u@h.x:443/a?q#f" [OSetScheme (B "https"); OSetHost (Some (B "example.org:99")); OSetPath (B "b c/../d?e")] with
     | Some u => list_eqb (ser u) (B "https://u@example.org/d%3Fe?q#f") && m_fix u | None => false end = true
  /\ match m_hist "http://u@h.x:443/a?q#f" [OSetScheme (B "https"); OSetHost (Some (B "example.org:99")); OSetPath (B "b c/../d?e");
                                            OSetIpHost (HIpv4 2130706433); OQPathname (B "x")] with
     | Some u => list_eqb (ser u) (B "https://u@127.0.0.1/x?q#f") && m_fix u | None => false end = true
  /\ match m_hist "a:/p" [OSetHost (Some (B "h")); OSetScheme (B "b"); OSetIpHost (HIpv6 [0;0;0;0;0;0;0;1])] with
     | Some u => list_eqb (ser u) (B "b://[::1]/p") && m_fix u | None => false end = true.
Proof. vm_compute. repeat split. Qed.

(* C02_statement3 and C02_statement are false.
   F-C07-8 inside C02: a://:pw@h/p -> quirks::set_host("") = a://:pw@/p (quirks::set_host refuses an empty host when
   the URL has a username or a port, but does not look at the password; quirks::set_hostname does).  The step is outside
   known_step2, the result is not a file URL, and its serialization does not parse (EmptyHost). *)
Definition w10_dummy : url := mkUrl [] 0 0 0 0 HI_None None 0 None None.
Definition w10_input : list N := B "a://:pw@h/p"%string.
Definition w10_op : op := OQHost [].
Definition w10_u0 : url :=
  match parse_url true mhp host_parse_opaque host_display None None w10_input with POk u => u | _ => w10_dummy end.
Definition w10_u1 : url :=
  match apply_op true mhp host_parse_opaque host_display w10_u0 w10_op with Some u => u | None => w10_dummy end.

Lemma w10_facts :
  parse_url true mhp host_parse_opaque host_display None None w10_input = POk w10_u0
  /\ Known_file_drive w10_u0 = false
  /\ known_step2 true mhp host_parse_opaque host_display w10_u0 w10_op = false
  /\ apply_op true mhp host_parse_opaque host_display w10_u0 w10_op = Some w10_u1
  /\ Known_file_drive w10_u1 = false
  /\ list_eqb (ser w10_u1) (B "a://:pw@/p") = true
  /\ match reparse true mhp host_parse_opaque host_display w10_u1 with PErr EmptyHost => true | _ => false end = true.
Proof. vm_compute. repeat split; reflexivity. Qed.

Lemma w10_input_usv : usv_list w10_input.
Proof. apply Forall_forall. intros c Hc. vm_compute in Hc. unfold is_usv. repeat (destruct Hc as [<-|Hc]; [lia|]). destruct Hc. Qed.

Theorem statement_refuted : ~ C02_statement.
Proof.
  intros H. destruct w10_facts as (E0 & K0 & KS & E1 & K1 & _ & R).
  assert (R1 : Reachable2 true mhp host_parse_opaque host_display w10_u1).
  { eapply R2_step; [eapply R2_parse; [exact w10_input_usv | exact E0 | exact K0] | | exact KS | exact E1 | exact K1].
    constructor. }
  pose proof (H true mhp host_parse_opaque host_display HostOK2_inhabited w10_u1 R1) as F. unfold Fixpoint_of_reparse in F.
  rewrite F in R. discriminate R.
Qed.

Theorem statement3_refuted : ~ C02_statement3.
Proof. intros H. exact (statement_refuted (statement3_implies_2 H)). Qed.
