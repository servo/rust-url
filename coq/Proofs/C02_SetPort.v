(* Proofs/C02_SetPort.v - what the setter files C02_Set*.v share, and L2 for set_port.
   Shared: every setter cuts the serialization at an offset, splices a piece in and moves the offsets behind the cut
   (adjust_qf_qs / adjust_qf_fs: the one move of the query and fragment offsets); it reads the scheme, cannot_be_a_base
   and has_authority off a text that begins scheme ":" (scheme_prefix, cbb_prefix, has_authority_prefix); and on Canon
   it has to treat the two forms with authority alike (Canon_auth_st, Canon_host_cases).
   set_port: on a canonical record the setter replaces the port text and shifts the offsets, the result is canonical
   again (and so a fixpoint of re-parsing). *)
From RU Require Import Base.Prelude Base.Utf8 Base.Utf8Facts Model.AsciiSet Gen.Tables
  Model.PercentEncoding Model.HostT Model.UrlRecord Model.Parser Model.Setters Model.WF
  Proofs.ListN Proofs.C14_Set Proofs.C14_Enc Proofs.C14_Views Proofs.C02_Enc Proofs.C02_Parts
  Proofs.C02_Opaque Proofs.C02_Path Proofs.C02_PathL1 Proofs.C02_Reach Proofs.C16_RT Proofs.C02_AuthParts
  Proofs.C02_Auth Proofs.C02_AuthWf Proofs.C02_PathSp Proofs.C02_AuthSp Proofs.C02_AuthMain Proofs.C02_SetQF
  Proofs.C02_Canon.
Open Scope N_scope.
Open Scope list_scope.

(* the frame: F = everything up to the end of the host, R = the path *)
Definition hp_url (F : list N) (pt : option N) (R : list N) (se ue hs : N) (hi : host_internal)
           (q f : option (list N)) : url :=
  qf_url ((F ++ port_text pt) ++ R) se ue hs (nlen F) hi pt (nlen (F ++ port_text pt)) q f.

Lemma slice_o_mid (a b c : list N) : slice_o (a ++ b ++ c) (nlen a) (nlen a + nlen b) = Some b.
Proof.
  rewrite slice_o_some by (rewrite ?nlen_app; lia). rewrite nskipn_app_len, N.add_comm, N.add_sub, nfirstn_app_len. reflexivity.
Qed.

Section Frame.
Variable dbg : bool.

Lemma adjust_ge idx a b : a <= idx -> adjust dbg idx a b = Some (idx - a + b).
Proof. intros H. unfold adjust. replace (a <=? idx) with true by (symmetry; apply N.leb_le; exact H). reflexivity. Qed.

(* the query and fragment offsets of a text whose part in front of the query has length n: everything the setters
   do to them is one move of n *)
Lemma adjust_qf_qs n q a b : a <= n -> adjust_opt dbg (qf_qs n q) a b = Some (qf_qs (n - a + b) q).
Proof. intros H. destruct q; cbn [qf_qs adjust_opt]; [|reflexivity]. rewrite adjust_ge by exact H. reflexivity. Qed.

Lemma adjust_qf_fs n q f a b : a <= n -> adjust_opt dbg (qf_fs n q f) a b = Some (qf_fs (n - a + b) q f).
Proof.
  intros H. destruct f; cbn [qf_fs adjust_opt]; [|reflexivity]. rewrite adjust_ge by lia. cbn [bindo]. do 2 f_equal. lia.
Qed.

Lemma adjust_qs X R q m : adjust_opt dbg (qf_qs (nlen (X ++ R)) q) (nlen X) m = Some (qf_qs (m + nlen R) q).
Proof. rewrite nlen_app, adjust_qf_qs by lia. do 2 f_equal. lia. Qed.

Lemma adjust_fs X R q f m : adjust_opt dbg (qf_fs (nlen (X ++ R)) q f) (nlen X) m = Some (qf_fs (m + nlen R) q f).
Proof. rewrite nlen_app, adjust_qf_fs by lia. do 2 f_equal. lia. Qed.

(* scheme, cannot_be_a_base and has_authority as the setters read them *)
Lemma scheme_prefix sch X ue hs he hi pt ps qs fs : scheme (mkUrl (sch ++ X) (nlen sch) ue hs he hi pt ps qs fs) = Some sch.
Proof.
  unfold scheme, u_slice_to. cbn [ser scheme_end]. rewrite slice_to_o_some by (rewrite nlen_app; lia).
  rewrite nfirstn_app_len. reflexivity.
Qed.

Lemma cbb_prefix sch X ue hs he hi pt ps qs fs :
  cannot_be_a_base (mkUrl (sch ++ 58 :: X) (nlen sch) ue hs he hi pt ps qs fs) = Some (negb (starts_with [47] X)).
Proof.
  unfold cannot_be_a_base, u_slice_from. cbn [ser scheme_end].
  change (sch ++ 58 :: X) with (sch ++ [58] ++ X). rewrite app_assoc.
  replace (nlen sch + 1) with (nlen (sch ++ [58])) by apply nlen_app.
  rewrite slice_from_o_some by (rewrite (nlen_app (sch ++ [58])); lia). rewrite nskipn_app_len. reflexivity.
Qed.

Lemma has_authority_prefix sch X ue hs he hi pt ps qs fs :
  has_authority dbg (mkUrl (sch ++ 58 :: X) (nlen sch) ue hs he hi pt ps qs fs) = Some (starts_with [47; 47] X).
Proof.
  unfold has_authority, byte_is, byte_at, u_slice_from. cbn [ser scheme_end].
  pose proof (byte_eqb_app sch 58 X) as Hb. unfold byte_eqb in Hb.
  destruct (nnth (sch ++ 58 :: X) (nlen sch)) as [x|]; [|discriminate]. cbn [bindo]. rewrite Hb.
  assert ((if dbg then assert_o true else Some tt) = Some tt) as -> by (destruct dbg; reflexivity). cbn [bindo].
  rewrite slice_from_o_some by (rewrite nlen_app; lia). rewrite nskipn_app_len. reflexivity.
Qed.

Variables (F R : list N) (se ue hs : N) (hi : host_internal).
Notation U pt q f := (hp_url F pt R se ue hs hi q f).

Lemma hp_ser pt q f : ser (U pt q f) = F ++ port_text pt ++ R ++ qf_text q f.
Proof. unfold hp_url, qf_url. cbn [ser]. rewrite <- !app_assoc. reflexivity. Qed.

Theorem set_port_internal_frame pt p' q f :
  set_port_internal dbg (U pt q f) p' = Some (U p' q f).
Proof.
  unfold set_port_internal. change (port (U pt q f)) with pt.
  pose proof (hp_ser pt q f) as Es.
  assert (u_slice_from (U pt q f) (nlen (F ++ port_text pt)) = Some (R ++ qf_text q f)) as Er.
  { unfold u_slice_from. rewrite Es, app_assoc.
    rewrite slice_from_o_some by (rewrite (nlen_app (F ++ port_text pt)); lia). rewrite nskipn_app_len. reflexivity. }
  change (host_end (U pt q f)) with (nlen F). change (path_start (U pt q f)) with (nlen (F ++ port_text pt)).
  change (query_start (U pt q f)) with (qf_qs (nlen ((F ++ port_text pt) ++ R)) q).
  change (fragment_start (U pt q f)) with (qf_fs (nlen ((F ++ port_text pt) ++ R)) q f).
  rewrite Er, Es. cbv zeta. unfold truncate, sub_off_opt. rewrite nfirstn_app_len.
  destruct pt as [o|], p' as [n|]; [destruct (o =? n) eqn:E; [apply N.eqb_eq in E; subst; reflexivity|] | | | reflexivity].
  1, 3: rewrite adjust_qs, adjust_fs; cbn [bindo]; unfold hp_url, qf_url; cbn [port_text];
        rewrite <- (nlen_app _ R), <- !app_assoc; reflexivity.
  rewrite slice_o_some by (rewrite ?nlen_app; lia). rewrite N.sub_0_r, nskipn_0, nfirstn_app_len.
  replace (nlen F <=? nlen (F ++ port_text (Some o))) with true by (symmetry; apply N.leb_le; rewrite nlen_app; lia).
  rewrite adjust_qf_qs, adjust_qf_fs by (rewrite !nlen_app; lia). cbn [assert_o bindo].
  unfold hp_url, qf_url. cbn [port_text]. rewrite !app_nil_r.
  replace (nlen ((F ++ 58 :: decimal o) ++ R) - (nlen (F ++ 58 :: decimal o) - nlen F) + 0) with (nlen (F ++ R))
    by (rewrite !nlen_app; lia).
  rewrite <- !app_assoc. reflexivity.
Qed.
End Frame.

Lemma host_eq_dec_nil (h : host) : {h = HDomain []} + {h <> HDomain []}.
Proof. destruct h as [[|c d]|a|ps]; [left; reflexivity | right; discriminate ..]. Qed.

(* the canonical record with authority in the frame *)
Section AuthPort.
Variable dbg : bool.
Variable hp hpo : list N -> result host.
Variable hd : host -> list N.
Hypothesis HRT : HostRT hp hpo hd.

Definition auth_A (sch : list N) (ui : uinfo) : list N := (sch ++ [58; 47; 47]) ++ ui_text ui.

Lemma auth_url_hp sch ui h pt p q f :
  auth_url hd sch ui h pt p q f
  = hp_url (auth_A sch ui ++ hd h) pt (pth_text p) (nlen sch) (nlen sch + 3 + ui_ulen ui)
           (nlen sch + 3 + nlen (ui_text ui)) (hi_of_host h) q f.
Proof.
  rewrite auth_url_qf. unfold hp_url, auth_A.
  assert (auth_front hd sch ui h pt = (((sch ++ [58; 47; 47]) ++ ui_text ui) ++ hd h) ++ port_text pt) as E
    by (unfold auth_front; rewrite <- !app_assoc; reflexivity).
  unfold auth_pre. rewrite E. f_equal.
  rewrite !nlen_app. change (nlen [58; 47; 47]) with 3. lia.
Qed.

Lemma sch_not_file st sch : scheme_type_of sch = st -> st_is_file st = false -> list_eqb sch s_file = false.
Proof.
  intros E Hf. destruct (list_eqb sch s_file) eqn:El; [|reflexivity].
  apply list_eqb_spec in El. subst sch. vm_compute in E. subst st. discriminate Hf.
Qed.

(* the scheme of the URL as the setter reads it *)
Lemma auth_scheme sch ui h pt p q f : scheme (auth_url hd sch ui h pt p q f) = Some sch.
Proof. unfold auth_url. rewrite auth_ser_shape. apply scheme_prefix. Qed.

(* cannot_have_credentials_or_port needs only the host and the scheme kind (not the port clause) *)
(* a record with authority and a non-empty host text: credentials and port are refused exactly for the file scheme *)
Lemma auth_cannot_port_text sch ui h pt p q f : h <> HDomain [] -> hd h <> [] ->
  cannot_have_credentials_or_port (auth_url hd sch ui h pt p q f) = Some (list_eqb sch s_file).
Proof.
  intros Hne Hn.
  unfold cannot_have_credentials_or_port, has_host. cbn [hosti auth_url].
  pose proof (auth_scheme sch ui h pt p q f) as Es.
  assert (u_slice (auth_url hd sch ui h pt p q f) (nlen sch + 3 + nlen (ui_text ui)) (nlen sch + 3 + nlen (ui_text ui) + nlen (hd h))
          = Some (hd h)) as Esl.
  { unfold u_slice. rewrite auth_url_hp, hp_ser, <- app_assoc.
    replace (nlen sch + 3 + nlen (ui_text ui)) with (nlen (auth_A sch ui)) by (unfold auth_A; rewrite !nlen_app; reflexivity).
    apply slice_o_mid. }
  destruct h as [[|c d]|a|pcs]; [contradiction| | |]; cbn [hi_of_host negb host_of hosti auth_url].
  - change (host_start (auth_url hd sch ui (HDomain (c :: d)) pt p q f)) with (nlen sch + 3 + nlen (ui_text ui)).
    change (host_end (auth_url hd sch ui (HDomain (c :: d)) pt p q f)) with (nlen sch + 3 + nlen (ui_text ui) + nlen (hd (HDomain (c :: d)))).
    rewrite Esl. cbn [bindo]. rewrite Es. cbn [bindo].
    destruct (hd (HDomain (c :: d))); [contradiction | reflexivity].
  - rewrite Es. reflexivity.
  - rewrite Es. reflexivity.
Qed.

Lemma auth_cannot_port_g st sch ui h pt p q f : scheme_type_of sch = st -> st_is_file st = false -> host_ok hp hpo hd st h ->
  cannot_have_credentials_or_port (auth_url hd sch ui h pt p q f)
  = Some (match h with HDomain [] => true | _ => false end).
Proof.
  intros Kst Hnf Kh. destruct Kh as [[-> _]|(Hne & Ht & _)]; [reflexivity|].
  rewrite (auth_cannot_port_text sch ui h pt p q f Hne (proj1 (proj2 Ht))), (sch_not_file st sch Kst Hnf).
  destruct h as [[|c d]| |]; [contradiction | | |]; reflexivity.
Qed.

Lemma auth_cannot_port st sch ui h pt p q f : auth_ok hp hpo hd st sch ui h pt p q f -> st_is_file st = false ->
  cannot_have_credentials_or_port (auth_url hd sch ui h pt p q f)
  = Some (match h with HDomain [] => true | _ => false end).
Proof. intros K Hnf. exact (auth_cannot_port_g st sch ui h pt p q f (ak_st _ _ _ _ _ _ _ _ _ _ _ K) Hnf (ak_h _ _ _ _ _ _ _ _ _ _ _ K)). Qed.

Lemma auth_ok_port st sch ui h pt p q f pt' : auth_ok hp hpo hd st sch ui h pt p q f ->
  h <> HDomain [] -> port_ok (default_port sch) pt' ->
  nlen (auth_ser hd sch ui h pt' p q f) <= U32_MAX_P -> auth_ok hp hpo hd st sch ui h pt' p q f.
Proof.
  intros K Hne Hpt Hb. destruct K as [Ksch Kst Kui Kh Kemp Kpt Kp Kq Kf Kb Kbq Kbf].
  destruct (qf_bounds _ _ _ _ Hb) as [B1 B2]. constructor; try assumption.
  - intros E. contradiction.
  - unfold auth_ser, auth_pre in Hb. rewrite !nlen_app in Hb. lia.
Qed.

Lemma set_port_internal_auth sch ui h pt p q f pt' :
  set_port_internal dbg (auth_url hd sch ui h pt p q f) pt' = Some (auth_url hd sch ui h pt' p q f).
Proof. rewrite !auth_url_hp. apply set_port_internal_frame. Qed.

Theorem set_port_auth st sch ui h pt p q f n u' s : auth_ok hp hpo hd st sch ui h pt p q f -> st_is_file st = false ->
  (match n with Some x => x <= 65535 | None => True end) ->
  set_port dbg (auth_url hd sch ui h pt p q f) n = Some (u', s) -> nlen (ser u') <= U32_MAX_P ->
  exists pt', auth_ok hp hpo hd st sch ui h pt' p q f /\ u' = auth_url hd sch ui h pt' p q f.
Proof.
  intros K Hnf Hn. unfold set_port. rewrite (auth_cannot_port st sch ui h pt p q f K Hnf). cbn [bindo].
  destruct (match h with HDomain [] => true | _ => false end) eqn:Eh.
  - intros E _. inversion E; subst. exists pt. split; [exact K | reflexivity].
  - assert (h <> HDomain []) as Hne by (intros ->; discriminate Eh).
    rewrite auth_scheme. cbn [bindo]. rewrite set_port_internal_auth. cbn [bindo].
    intros E Hb. inversion E; subst u' s. clear E.
    eexists. split; [|reflexivity]. apply (auth_ok_port st sch ui h pt p q f); try assumption.
    destruct n as [x|]; [|exact I].
    destruct (opt_eqb (Some x) (default_port sch)) eqn:Eo; [exact I|].
    split; [exact Hn|]. intros Ed. rewrite Ed in Eo. cbn [opt_eqb] in Eo. rewrite N.eqb_refl in Eo. discriminate Eo.
Qed.

(* Canon by cases *)
Lemma Canon_cases u : Canon hp hpo hd u ->
  (exists sch P q f, opaque_ok sch P q f /\ u = opaque_url sch P q f)
  \/ (exists sch segs last q f, noauth_ok sch segs last q f /\ u = noauth_url sch (path_text segs last) q f)
  \/ exists st sch ui h pt p q f, st_is_file st = false /\ auth_ok hp hpo hd st sch ui h pt p q f
       /\ (st = STSpecialNotFile -> pth_ok_sp p) /\ u = auth_url hd sch ui h pt p q f.
Proof.
  intros [sch P q f K | sch segs last q f K | sch ui h pt p q f K | sch ui h pt p q f K Kp].
  - left. exists sch, P, q, f. split; [exact K | reflexivity].
  - right; left. exists sch, segs, last, q, f. split; [exact K | reflexivity].
  - right; right. exists STNotSpecial, sch, ui, h, pt, p, q, f. split; [reflexivity | split; [exact K | split; [discriminate | reflexivity]]].
  - right; right. exists STSpecialNotFile, sch, ui, h, pt, p, q, f. split; [reflexivity | split; [exact K | split; [intros _; exact Kp | reflexivity]]].
Qed.

(* for the setters of port and credentials: they refuse a record without host *)
Lemma Canon_host_cases u : Canon hp hpo hd u ->
  cannot_have_credentials_or_port u = Some true
  \/ exists st sch ui h pt p q f, st_is_file st = false /\ auth_ok hp hpo hd st sch ui h pt p q f
       /\ (st = STSpecialNotFile -> pth_ok_sp p) /\ u = auth_url hd sch ui h pt p q f.
Proof.
  intros C. destruct (Canon_cases u C) as [(sch & P & q & f & _ & ->) | [(sch & segs & last & q & f & _ & ->) | H]];
    [left; reflexivity | left; reflexivity | right; exact H].
Qed.

(* L2: set_port keeps Canon *)
Theorem set_port_Canon u n u' s : Canon hp hpo hd u ->
  (match n with Some x => x <= 65535 | None => True end) ->
  set_port dbg u n = Some (u', s) -> nlen (ser u') <= U32_MAX_P -> Canon hp hpo hd u'.
Proof.
  intros C Hn. destruct (Canon_host_cases u C) as [Hc | (st & sch & ui & h & pt & p & q & f & Hnf & K & Kp & ->)].
  - unfold set_port. rewrite Hc. intros E _. inversion E; subst. exact C.
  - intros E Hb. destruct (set_port_auth st sch ui h pt p q f n u' s K Hnf Hn E Hb) as (pt' & K' & ->).
    exact (Canon_auth_st hp hpo hd st sch ui h pt' p q f Hnf K' Kp).
Qed.
End AuthPort.
