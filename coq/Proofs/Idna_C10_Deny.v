(* Proofs/Idna_C10_Deny.v - deny lists as bit sets: every deny list the API can build (valid_deny)
   contains the upper-case letters and none of a-z 0-9 '-' '.'; the character predicates of the
   C10 output theorem (clean / okc / lowclean) and how apply_upper / apply_lower produce them;
   list lemmas about split1 / split_on / join_dots; xn_clean (the four characters of xn-- are clean). *)
From RU Require Import Base.Prelude Base.Utf8 Base.U32_c13 Gen.Tables Model.Punycode Model.Uts46
  Proofs.Idna_Sim Proofs.Idna_Api Proofs.Idna_Known Proofs.Idna_Hyp.

Lemma deny_member_testbit deny c : deny_member deny c = N.testbit deny c.
Proof.
  unfold deny_member. rewrite N.shiftl_1_l.
  destruct (N.testbit deny c) eqn:E.
  - apply negb_true_iff. apply N.eqb_neq. intros H.
    assert (N.testbit (N.land deny (2 ^ c)) c = false) as H1 by (rewrite H; apply N.bits_0).
    rewrite N.land_spec, E, N.pow2_bits_true in H1. discriminate.
  - apply negb_false_iff. apply N.eqb_eq. apply N.bits_inj_0. intros j.
    rewrite N.land_spec, N.pow2_bits_eqb.
    destruct (N.eqb_spec c j) as [->|Hne]; [rewrite E; reflexivity | apply andb_false_r].
Qed.

Lemma fold_bits l : forall init c,
  N.testbit (fold_left (fun bits b => N.lor bits (N.shiftl 1 b)) l init) c = N.testbit init c || memb c l.
Proof.
  induction l as [|a r IH]; intros init c; cbn [fold_left memb].
  - rewrite orb_false_r. reflexivity.
  - rewrite IH. rewrite N.lor_spec, N.shiftl_1_l, N.pow2_bits_eqb. rewrite (N.eqb_sym a c).
    rewrite orb_assoc. reflexivity.
Qed.

(* the letters, digits, hyphen and dot are in no deny list the API can build (LdhFree); the upper-case letters
   are in every one (DenyUpper) *)
Definition ldh (c : N) : bool := is_lower c || is_digit c || (c =? 45) || (c =? 46).
Definition LdhFree (deny : N) : Prop := forall c, ldh c = true -> deny_member deny c = false.

Lemma ldh_lt c : ldh c = true -> c < 128.
Proof. unfold ldh, is_lower, is_digit. lia. Qed.

Lemma sweep_pos (p q : N -> bool) : all_below 128 (fun b => implb (p b) (q b)) = true ->
  forall c, c < 128 -> p c = true -> q c = true.
Proof.
  intros H c Hc Hp. pose proof (all_below_spec 128 (fun b => implb (p b) (q b)) H c Hc) as Hx. cbv beta in Hx. rewrite Hp in Hx. exact Hx.
Qed.
Lemma sweep_neg (p q : N -> bool) : all_below 128 (fun b => implb (p b) (negb (q b))) = true ->
  forall c, c < 128 -> p c = true -> q c = false.
Proof.
  intros H c Hc Hp. pose proof (all_below_spec 128 (fun b => implb (p b) (negb (q b))) H c Hc) as Hx. cbv beta in Hx. rewrite Hp in Hx.
  destruct (q c); [discriminate Hx|reflexivity].
Qed.

Lemma std3_ldh : all_below 128 (fun b => implb (ldh b) (negb (deny_member DENY_STD3 b))) = true.
Proof. vm_compute. reflexivity. Qed.
Lemma init_upper (g : bool) : all_below 128 (fun b => implb (is_upper b)
  (N.testbit (if g then N.lor UPPER_CASE_MASK GLYPHLESS_MASK else UPPER_CASE_MASK) b)) = true.
Proof. destruct g; vm_compute; reflexivity. Qed.
Lemma init_ldh (g : bool) : all_below 128 (fun b => implb (ldh b)
  (negb (N.testbit (if g then N.lor UPPER_CASE_MASK GLYPHLESS_MASK else UPPER_CASE_MASK) b))) = true.
Proof. destruct g; vm_compute; reflexivity. Qed.
Lemma forbidden_ldh : all_below 128 (fun b => implb (ldh b) (memb b T_IDNA_NEW_FORBIDDEN)) = true.
Proof. vm_compute. reflexivity. Qed.

Lemma std3_facts : DenyUpper DENY_STD3 /\ LdhFree DENY_STD3.
Proof.
  split; [exact (proj1 (proj2 deny_upper_builtin))|].
  intros c Hc. exact (sweep_neg ldh (deny_member DENY_STD3) std3_ldh c (ldh_lt c Hc) Hc).
Qed.

Lemma new_facts g l deny : deny_new g l = Ok deny -> DenyUpper deny /\ LdhFree deny.
Proof.
  unfold deny_new. destruct (existsb (fun b => memb b T_IDNA_NEW_FORBIDDEN) l) eqn:E; [discriminate|].
  intros H. inversion H as [Hd]. clear H. unfold deny_new_bits.
  set (init := if g then N.lor UPPER_CASE_MASK GLYPHLESS_MASK else UPPER_CASE_MASK).
  split.
  - intros c Hc. rewrite deny_member_testbit, fold_bits.
    assert (Hlt : c < 128) by (unfold is_upper in Hc; lia).
    rewrite (sweep_pos is_upper (N.testbit init) (init_upper g) c Hlt Hc). reflexivity.
  - intros c Hc. rewrite deny_member_testbit, fold_bits.
    pose proof (ldh_lt c Hc) as Hlt.
    rewrite (sweep_neg ldh (N.testbit init) (init_ldh g) c Hlt Hc). cbn [orb].
    pose proof (sweep_pos ldh (fun b => memb b T_IDNA_NEW_FORBIDDEN) forbidden_ldh c Hlt Hc) as Hf. cbv beta in Hf.
    destruct (memb c l) eqn:Em; [|reflexivity].
    apply memb_spec in Em.
    assert (existsb (fun b => memb b T_IDNA_NEW_FORBIDDEN) l = true) by (apply existsb_exists; exists c; auto).
    congruence.
Qed.

Theorem valid_deny_facts deny : valid_deny deny -> DenyUpper deny /\ LdhFree deny.
Proof.
  intros [->|(g & l & H)]; [exact std3_facts|exact (new_facts g l deny H)].
Qed.

(* okc: what holds of every character of the domain buffer: if it is ASCII it is not denied *)
Definition okc (deny c : N) : Prop := c < 128 -> deny_member deny c = false.
(* clean: what holds of every character written: ASCII and not denied *)
Definition clean (deny c : N) : Prop := c < 128 /\ deny_member deny c = false.
(* lowclean: text that is clean once ASCII-lower-cased *)
Definition lowclean (deny : N) (m : list N) : Prop := Forall (fun c => clean deny (to_lower c)) m.

Lemma okc_ge deny c : 128 <= c -> okc deny c.
Proof. unfold okc. lia. Qed.
Lemma okc_fffd deny : okc deny FFFD.
Proof. apply okc_ge. unfold FFFD, REPLACEMENT. lia. Qed.
Lemma clean_okc deny c : clean deny c -> okc deny c.
Proof. intros [_ H] _. exact H. Qed.
Lemma okc_clean deny c : c < 128 -> okc deny c -> clean deny c.
Proof. intros Hc H. split; [exact Hc|exact (H Hc)]. Qed.
Lemma ldh_clean deny c : LdhFree deny -> ldh c = true -> clean deny c.
Proof. intros HL Hc. split; [exact (ldh_lt c Hc)|exact (HL c Hc)]. Qed.
Lemma clean_final deny c : DenyUpper deny -> clean deny c ->
  c < 128 /\ is_upper c = false /\ deny_member deny c = false.
Proof.
  intros HU [Hc Hm]. repeat split; [exact Hc| |exact Hm].
  destruct (is_upper c) eqn:E; [|reflexivity]. rewrite (HU c E) in Hm. discriminate.
Qed.
Lemma dot_clean deny : LdhFree deny -> clean deny DOT.
Proof. intros HL. apply ldh_clean; [exact HL|reflexivity]. Qed.
Lemma xn_clean deny : LdhFree deny -> Forall (clean deny) XN_PREFIX.
Proof. intros HL. unfold XN_PREFIX. repeat constructor; apply ldh_clean; try exact HL; reflexivity. Qed.

Lemma range8_spec b s e : b < 256 -> s <= e -> e < 256 -> in_inclusive_range8 b s e = true -> s <= b /\ b <= e.
Proof. unfold in_inclusive_range8. intros Hb Hs He H. assert (b < s \/ s <= b) as [Hc|Hc] by lia; lia. Qed.

Lemma apply_upper_okc deny b : LdhFree deny -> b < 256 -> okc deny (apply_upper deny b).
Proof.
  intros HL Hb. unfold apply_upper.
  destruct (N.land deny (N.shiftl 1 b) =? 0) eqn:E.
  - intros _. unfold deny_member. rewrite E. reflexivity.
  - destruct (in_inclusive_range8 b 65 90) eqn:E2; [|apply okc_fffd].
    apply range8_spec in E2; [|lia|lia|lia]. apply clean_okc, ldh_clean; [exact HL|].
    unfold ldh, is_lower. lia.
Qed.
Lemma apply_upper_lowclean deny b : DenyUpper deny -> LdhFree deny -> b < 128 ->
  apply_upper deny b <> FFFD -> clean deny (to_lower b).
Proof.
  intros HU HL Hb. unfold apply_upper.
  destruct (N.land deny (N.shiftl 1 b) =? 0) eqn:E.
  - intros _. assert (Hm : deny_member deny b = false) by (unfold deny_member; rewrite E; reflexivity).
    unfold to_lower. destruct (is_upper b) eqn:Eu; [rewrite (HU b Eu) in Hm; discriminate|].
    split; [exact Hb|exact Hm].
  - destruct (in_inclusive_range8 b 65 90) eqn:E2; [|intros H; contradiction H; reflexivity].
    intros _. apply range8_spec in E2; [|lia|lia|lia].
    unfold to_lower, is_upper. replace ((65 <=? b) && (b <=? 90)) with true by lia.
    apply ldh_clean; [exact HL|]. unfold ldh, is_lower. lia.
Qed.

Lemma lor_member deny m c : deny_member (N.lor deny m) c = false -> deny_member deny c = false.
Proof. rewrite !deny_member_testbit, N.lor_spec. intros H. apply orb_false_iff in H. exact (proj1 H). Qed.

Lemma apply_lower_okc deny m c : okc deny (apply_lower (N.lor deny m) c).
Proof.
  unfold apply_lower. destruct (c <? 128) eqn:E; [|apply okc_ge; lia].
  destruct (N.land (N.lor deny m) (N.shiftl 1 c) =? 0) eqn:E2; [|apply okc_fffd].
  intros _. apply (lor_member deny m). unfold deny_member. rewrite E2. reflexivity.
Qed.
Lemma apply_lower_okc0 deny c : okc deny (apply_lower deny c).
Proof.
  unfold apply_lower. destruct (c <? 128) eqn:E; [|apply okc_ge; lia].
  destruct (N.land deny (N.shiftl 1 c) =? 0) eqn:E2; [|apply okc_fffd].
  intros _. unfold deny_member. rewrite E2. reflexivity.
Qed.
Lemma apply_lower_id dd c : apply_lower dd c <> FFFD -> apply_lower dd c = c.
Proof.
  unfold apply_lower. destruct (c <? 128); [|reflexivity].
  destruct (N.land dd (N.shiftl 1 c) =? 0); [reflexivity|]. intros H; contradiction H; reflexivity.
Qed.
Lemma map_apply_lower_id dd l : existsb is_fffd (map (apply_lower dd) l) = false -> map (apply_lower dd) l = l.
Proof.
  induction l as [|c r IH]; cbn [map existsb]; [reflexivity|].
  intros H. apply orb_false_iff in H. destruct H as [H1 H2]. rewrite (IH H2). f_equal.
  apply apply_lower_id. intros Hq. unfold is_fffd in H1. rewrite Hq, N.eqb_refl in H1. discriminate.
Qed.

Lemma passthrough_clean deny label : LdhFree deny -> bytes label ->
  is_passthrough_ascii_label label = true -> Forall (clean deny) label.
Proof.
  intros HL Hb. unfold is_passthrough_ascii_label.
  destruct ((4 <=? len label) && (nth 2 label 0 =? HYPHEN) && (nth 3 label 0 =? HYPHEN)); [discriminate|].
  destruct label as [|f t]; [constructor|].
  inversion Hb as [|? ? Hf Ht]; subst.
  destruct (in_inclusive_range8 f 97 122) eqn:E1; cbn [negb]; [|discriminate].
  destruct (forallb (fun b => in_inclusive_range8 b 97 122 || in_inclusive_range8 b 48 57 || (b =? HYPHEN)) t) eqn:E2;
    cbn [negb]; [|discriminate].
  intros _. constructor.
  - apply range8_spec in E1; [|exact Hf|lia|lia]. apply ldh_clean; [exact HL|]. unfold ldh, is_lower. lia.
  - rewrite forallb_forall in E2. apply Forall_forall. intros x Hx. specialize (E2 x Hx).
    unfold bytes in Ht. rewrite Forall_forall in Ht. specialize (Ht x Hx). unfold is_byte in Ht.
    apply ldh_clean; [exact HL|]. unfold ldh, is_lower, is_digit, HYPHEN in *.
    destruct (in_inclusive_range8 x 97 122) eqn:Ea.
    + apply range8_spec in Ea; [|exact Ht|lia|lia]. lia.
    + destruct (in_inclusive_range8 x 48 57) eqn:Eb.
      * apply range8_spec in Eb; [|exact Ht|lia|lia]. lia.
      * cbn [orb] in E2. lia.
Qed.

Definition tailtext (seen : bool) (rl : list (list N)) : list N :=
  if seen then match rl with [] => [] | _ => DOT :: join_dots rl end else join_dots rl.

Lemma join_dots_cons m rl : join_dots (m :: rl) = m ++ tailtext true rl.
Proof. destruct rl as [|x r]; cbn [join_dots tailtext]; [rewrite app_nil_r|]; reflexivity. Qed.

Lemma split1_join l : forall h t, split1 DOT l = (h, t) -> l = join_dots (h :: t).
Proof.
  induction l as [|x r IH]; intros h t H; cbn [split1] in H.
  - inversion H. reflexivity.
  - destruct (split1 DOT r) as [h0 t0]. pose proof (IH h0 t0 eq_refl) as IH0. clear IH.
    destruct (x =? DOT) eqn:E.
    + apply N.eqb_eq in E. inversion H as [[Hh Ht]]. subst h t. rewrite (join_dots_cons [] (h0 :: t0)). cbn [app tailtext].
      rewrite E. f_equal. exact IH0.
    + inversion H as [[Hh Ht]]. subst h t. rewrite (join_dots_cons (x :: h0) t0). cbn [app]. f_equal.
      rewrite IH0. apply join_dots_cons.
Qed.
Lemma join_split l : join_dots (split_on DOT l) = l.
Proof. unfold split_on. destruct (split1 DOT l) as [h t] eqn:E. symmetry. exact (split1_join l h t E). Qed.

Lemma split1_Forall (Q : N -> Prop) sep l : forall h t, Forall Q l -> split1 sep l = (h, t) -> Forall Q h /\ Forall (Forall Q) t.
Proof.
  induction l as [|x r IH]; intros h t HF H; cbn [split1] in H.
  - inversion H. split; constructor.
  - inversion HF as [|? ? Hx Hr]; subst. destruct (split1 sep r) as [h0 t0]. destruct (IH h0 t0 Hr eq_refl) as [I1 I2].
    destruct (x =? sep); inversion H; subst.
    + split; [constructor|constructor; assumption].
    + split; [constructor; assumption|assumption].
Qed.
Lemma split_on_Forall (Q : N -> Prop) sep l : Forall Q l -> Forall (Forall Q) (split_on sep l).
Proof.
  intros H. unfold split_on. destruct (split1 sep l) as [h t] eqn:E.
  destruct (split1_Forall Q sep l h t H E). constructor; assumption.
Qed.
Lemma join_dots_Forall (Q : N -> Prop) ls : Q DOT -> Forall (Forall Q) ls -> Forall Q (join_dots ls).
Proof.
  intros Hd. induction ls as [|l r IH]; intros H; [constructor|].
  inversion H as [|? ? Hl Hr]; subst. rewrite join_dots_cons. apply Forall_app. split; [exact Hl|].
  destruct r as [|x r']; cbn [tailtext]; [constructor|]. constructor; [exact Hd|exact (IH Hr)].
Qed.

Lemma len_app a b : len (a ++ b) = len a + len b.
Proof. unfold len. rewrite app_length. lia. Qed.
Lemma firstn_len_app (P R : list N) : firstn (N.to_nat (len P)) (P ++ R) = P.
Proof.
  unfold len. rewrite Nat2N.id. rewrite firstn_app, Nat.sub_diag, firstn_all. cbn [firstn]. apply app_nil_r.
Qed.

(* the fastest tier leaves a clean prefix: a-z and dots only *)
Lemma fast_tier_split iter : forall mrls t, fast_tier iter mrls = Some t ->
  t = mrls \/ exists pre, iter = pre ++ DOT :: t /\ Forall (fun b => in_inclusive_range8 b 97 122 = true \/ b = DOT) pre.
Proof.
  induction iter as [|b r IH]; intros mrls t H; [discriminate|]. cbn [fast_tier] in H.
  destruct (in_inclusive_range8 b 97 122) eqn:E.
  - destruct (IH mrls t H) as [->|(pre & -> & Hp)]; [left; reflexivity|].
    right. exists (b :: pre). split; [reflexivity|]. constructor; [left; exact E|exact Hp].
  - destruct (b =? DOT) eqn:E2; [|inversion H; left; reflexivity].
    apply N.eqb_eq in E2. subst b. right. destruct (IH r t H) as [->|(pre & -> & Hp)].
    + exists []. split; [reflexivity|constructor].
    + exists (DOT :: pre). split; [reflexivity|]. constructor; [right; reflexivity|exact Hp].
Qed.
Lemma fast_tier_tail iter : bytes iter -> forall mrls t, fast_tier iter mrls = Some t ->
  t = mrls \/ exists pre, iter = pre ++ DOT :: t /\ Forall lower_or_dot pre.
Proof.
  intros Hb mrls t H. destruct (fast_tier_split iter mrls t H) as [->|(pre & -> & Hp)]; [left; reflexivity|].
  right. exists pre. split; [reflexivity|]. apply Forall_app in Hb. destruct Hb as [Hb _].
  rewrite Forall_forall in *. intros x Hx.
  destruct (Hp x Hx) as [H1|H1]; [left; exact (in_range8_lower x (Hb x Hx) H1)|right; exact H1].
Qed.
Lemma fast_tier_some iter : bytes iter -> forall mrls t, fast_tier iter mrls = Some t ->
  t = mrls \/ exists pre, iter = pre ++ t /\ Forall lower_or_dot pre.
Proof.
  intros Hb mrls t H. destruct (fast_tier_tail iter Hb mrls t H) as [->|(pre & -> & Hp)]; [left; reflexivity|].
  right. exists (pre ++ [DOT]). split; [rewrite <- app_assoc; reflexivity|].
  apply Forall_app. split; [exact Hp|]. constructor; [right; reflexivity|constructor].
Qed.
Lemma lower_or_dot_clean deny b : LdhFree deny -> lower_or_dot b -> clean deny b.
Proof. intros HL H. apply ldh_clean; [exact HL|]. unfold lower_or_dot, DOT, ldh, is_lower in *. lia. Qed.

Lemma tailtext_cons seen label todo :
  tailtext seen (label :: todo) = (if seen then [DOT] else []) ++ label ++ tailtext true todo.
Proof. destruct seen; cbn [tailtext]; rewrite join_dots_cons; reflexivity. Qed.

Lemma split_ascii_app label a n : split_ascii_fast_path_prefix label = (a, n) -> label = a ++ n.
Proof.
  unfold split_ascii_fast_path_prefix. destruct (position (fun b => negb (is_ascii_cp b)) label) as [[|p]|];
    intros H; inversion H; subst.
  - reflexivity.
  - symmetry. apply firstn_skipn.
  - symmetry. apply app_nil_r.
Qed.

Lemma trim_nsm_rev_spec A rtail : forall nsms p l n, trim_nsm_rev A rtail nsms = Some (p, l, n) ->
  rev rtail ++ nsms = p ++ l :: n.
Proof.
  induction rtail as [|x rprior IH]; intros nsms p l n H; cbn [trim_nsm_rev] in H; [discriminate|].
  destruct (bc_nsm (bidi_class A x)).
  - rewrite <- (IH _ _ _ _ H). cbn [rev]. rewrite <- app_assoc. reflexivity.
  - inversion H. subst. cbn [rev]. rewrite <- app_assoc. reflexivity.
Qed.
Lemma trim_nsm_spec A tail p l n : trim_nsm A tail = Some (p, l, n) -> tail = p ++ l :: n.
Proof.
  unfold trim_nsm. intros H. apply trim_nsm_rev_spec in H. rewrite rev_involutive, app_nil_r in H. exact H.
Qed.
