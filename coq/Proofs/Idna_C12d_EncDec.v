(* Proofs/Idna_C12d_EncDec.v - the enc-after-dec direction of the Punycode round trip (C13_enc_dec_all) transported to
   the Internal instantiations that uts46.rs uses: for an all-ASCII p (the text behind xn-- of an ASCII input label)
     decode_with U8Internal p = Ok s,  s of at most 1000 scalar values
       ==>  encode_internal s = Ok (map to_lower p).
   The u8 internal decoder lower-cases the basic code units, the digits are read case-insensitively and written in lower
   case, the delimiter is its own lower case: the encoder gives back the lower-cased input.
   Proof: a successful run of the model's decoder (any instantiation) is a run of the checked decoder b_dec_loop on
   rest with the initial output map (inst_base_char it) base (dec_loop_b is generic); the external decoder accepts
   p' = map to_lower base ++ "-" ++ rest with the same result (decode_complete); enc_dec_all on p'; the internal-caller
   encoder is the external one below 1001 scalar values (internal_main). *)
From RU Require Import Base.Prelude Base.Utf8 Base.U32_c13 Gen.Tables Model.Punycode Model.Uts46 Spec.Rfc3492
  Proofs.C13_Ascii Proofs.C13_Bounds Proofs.C13_Enc Proofs.C13_Dec Proofs.C13_Known Proofs.C13_Vli Proofs.C13_Rt
  Proofs.C13_DecB Proofs.C13_RtB Proofs.C13_DecEnc Proofs.C13_Mono Proofs.C13_Parse Proofs.C13_EncDecB Proofs.C13_EncDec
  Proofs.C13_Small Proofs.C13_Main Proofs.Idna_PunyRT.

(* a successful run of any instantiation of the model's decoder is a run of the checked decoder *)
Lemma decode_with_b cfg it p s : C13_Enc.len p <= U32_MAX -> decode_with cfg it p = Ok s ->
  exists base rest, s_split p = (base, rest)
    /\ b_dec_loop (inst_digit it) rest false 0 1 s_base 0 s_initial_n s_initial_bias (map (inst_base_char it) base) = Some s.
Proof.
  intros Hp. unfold decode_with, decoder_decode. rewrite split_eq.
  destruct (s_split p) as [base rest] eqn:Es. pose proof (split_len _ _ _ Es) as Hsl.
  destruct (inst_external it && negb (forallb (fun c => c <? 128) base)); [discriminate|].
  assert (Hw : u32_wrap (N.of_nat (length base)) = C13_Enc.len base).
  { unfold u32_wrap. apply N.mod_small. unfold C13_Enc.len, U32_MOD, U32_MAX in *. lia. }
  rewrite Hw.
  pose proof (Rep_base_only it base 0) as HR0.
  destruct (dec_loop cfg it rest false 0 1 BASE 0 (C13_Enc.len base) INITIAL_N INITIAL_BIAS []) as [ins| |site] eqn:Ed;
    try discriminate.
  destruct (dec_loop_b cfg it base rest false 0 1 BASE 0 (C13_Enc.len base) INITIAL_N INITIAL_BIAS []
              (map (inst_base_char it) base) ins (eq_sym (len_map _ _)) ltac:(lia) HR0 Ed) as [out' [Hb HR]].
  rewrite (collect_Rep _ _ _ _ _ HR). intros H. inversion H. subst out'.
  exists base, rest. split; [reflexivity|exact Hb].
Qed.

(* what the checked decoder reads are digits *)
Lemma b_dec_digits dig R : forall mid oldi w k i n bias out s,
  b_dec_loop dig R mid oldi w k i n bias out = Some s -> Forall (fun c => dig c <> None) R.
Proof.
  induction R as [|c R IH]; intros mid oldi w k i n bias out s H; [constructor|].
  rewrite b_dec_loop_cons in H. destruct (dig c) as [digit|] eqn:Ec; [|discriminate].
  constructor; [rewrite Ec; discriminate|].
  destruct ((digit * w <=? U32_MAX) && (i + digit * w <=? U32_MAX)); [|discriminate].
  destruct (digit <? s_threshold k bias).
  - unfold b_dec_break in H. cbv zeta in H.
    destruct ((C13_Enc.len out + 1 <=? U32_MAX) && (n + (i + digit * w) / (C13_Enc.len out + 1) <=? U32_MAX)); [|discriminate].
    destruct (is_usvb (n + (i + digit * w) / (C13_Enc.len out + 1))); [|discriminate].
    exact (IH _ _ _ _ _ _ _ _ _ H).
  - destruct (w * (s_base - s_threshold k bias) <=? U32_MAX); [|discriminate]. exact (IH _ _ _ _ _ _ _ _ _ H).
Qed.

Lemma digit_u8_delim : digit_u8 s_delimiter = None.
Proof. vm_compute. reflexivity. Qed.

Lemma digits_nodelim R : Forall (fun c => digit_u8 c <> None) R -> nodelim R.
Proof.
  unfold nodelim. intros H. eapply Forall_impl; [|exact H]. cbv beta. intros c Hc E. subst c. apply Hc. exact digit_u8_delim.
Qed.

(* the input around its last delimiter *)
Lemma rpos_split p : forall k, s_rposition p = Some k -> p = firstn k p ++ s_delimiter :: skipn (Datatypes.S k) p.
Proof.
  induction p as [|x r IH]; intros k H; [discriminate|]. cbn [s_rposition] in H.
  destruct (s_rposition r) as [j|] eqn:Er.
  - inversion H. subst k. cbn [firstn skipn app]. f_equal. exact (IH j eq_refl).
  - destruct (x =? s_delimiter) eqn:E; [|discriminate]. inversion H. subst k. apply N.eqb_eq in E. subst x.
    cbn [firstn skipn app]. reflexivity.
Qed.

Lemma to_lower_ascii_b c : (to_lower c <? 128) = (c <? 128).
Proof. unfold to_lower, is_upper. destruct ((65 <=? c) && (c <=? 90)) eqn:E; lia. Qed.
Lemma forallb_lower_ascii l : forallb (fun c => c <? 128) (map to_lower l) = forallb (fun c => c <? 128) l.
Proof. induction l as [|c r IH]; [reflexivity|]. cbn [map forallb]. rewrite IH, to_lower_ascii_b. reflexivity. Qed.
Lemma to_lower_sdelim : to_lower s_delimiter = s_delimiter.
Proof. reflexivity. Qed.

Theorem enc_dec_internal cfg p s : Forall (fun b => b < 128) p -> C13_Enc.len p <= U32_MAX ->
  decode_with cfg U8Internal p = Ok s -> usv_list s -> (length s <= 1000)%nat ->
  encode_internal cfg s = Ok (map to_lower p).
Proof.
  intros Hap HLp Hdec Hu Hl.
  destruct (decode_with_b cfg U8Internal p s HLp Hdec) as (base & rest & Es & Hb).
  cbn [inst_digit inst_base_char] in Hb.
  change (map (fun c => to_lower c) base) with (map to_lower base) in Hb.
  pose proof (digits_nodelim rest (b_dec_digits _ _ _ _ _ _ _ _ _ _ _ Hb)) as Hnd.
  pose proof (split_len _ _ _ Es) as Hsl.
  destruct (internal_main cfg s Hu Hl) as [E1 _]. rewrite E1.
  assert (Hapb : forallb (fun c => c <? 128) p = true).
  { apply forallb_forall. intros c Hc. rewrite Forall_forall in Hap. specialize (Hap c Hc). lia. }
  unfold s_split in Es. destruct (s_rposition p) as [[|k]|] eqn:Er.
  - (* a delimiter at position 0 only: it is read as a digit *)
    exfalso. destruct (rposition_zero p Er) as [r Hr]. change (0 <? 0)%nat with false in Es. cbv iota in Es.
    injection Es as Eb Erest. subst rest. rewrite Hr in Hb. rewrite b_dec_loop_cons in Hb.
    rewrite digit_u8_delim in Hb. discriminate.
  - change (0 <? Datatypes.S k)%nat with true in Es. cbv iota in Es. injection Es as Eb Erest.
    assert (Hp : p = base ++ s_delimiter :: rest) by (rewrite <- Eb, <- Erest; exact (rpos_split p _ Er)).
    assert (Hab : forallb (fun c => c <? 128) base = true).
    { rewrite Hp, forallb_app in Hapb. apply andb_true_iff in Hapb. exact (proj1 Hapb). }
    assert (Hne : map to_lower base <> []).
    { rewrite <- Eb. destruct p as [|x r]; [discriminate|]. cbn [firstn map]. discriminate. }
    set (p' := map to_lower base ++ [s_delimiter] ++ rest).
    pose proof (split_encoded (map to_lower base) rest Hne Hnd) as Es'. fold p' in Es'.
    assert (Hd' : decode cfg p' = Ok s).
    { apply (decode_complete cfg p' (map to_lower base) rest s Es').
      - rewrite forallb_lower_ascii. exact Hab.
      - rewrite len_map. lia.
      - exact Hb. }
    assert (Hk' : ~ Known_C13_2 p').
    { unfold Known_C13_2, p'. unfold C13_Enc.len in *. rewrite !app_length, map_length. cbn [length].
      rewrite Hp in HLp. rewrite app_length in HLp. cbn [length] in HLp. lia. }
    destruct (enc_dec_all cfg p' s Hk' Hd') as (q & Eq & Hq). rewrite Eq. f_equal.
    unfold eq_upto_digit_case, lower_digits in Hq. rewrite Es' in Hq.
    unfold p' in Hq at 1. cbn [app] in Hq. rewrite (rpos_app (map to_lower base) rest Hnd) in Hq.
    destruct (length (map to_lower base)) as [|j] eqn:Ej; [destruct (map to_lower base); [contradiction Hne; reflexivity|discriminate]|].
    rewrite Hq, Hp, map_app. cbn [map app]. rewrite to_lower_sdelim.
    reflexivity.
  - injection Es as Eb Erest. subst base rest. cbn [map] in Hb.
    assert (Hd' : decode cfg p = Ok s).
    { apply (decode_complete cfg p [] p s).
      - unfold s_split. rewrite Er. reflexivity.
      - reflexivity.
      - rewrite len_nil. unfold U32_MAX. lia.
      - exact Hb. }
    assert (Hk' : ~ Known_C13_2 p) by (unfold Known_C13_2; lia).
    destruct (enc_dec_all cfg p s Hk' Hd') as (q & Eq & Hq). rewrite Eq. f_equal.
    unfold eq_upto_digit_case, lower_digits in Hq. unfold s_split in Hq. rewrite Er in Hq. exact Hq.
Qed.
