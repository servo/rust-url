(* Proofs/Idna_C10_Prefix.v - XnPrefixSpec (Proofs/Idna_Redisc.v) holds: on bytes, has_punycode_prefix
   (one masked 32-bit comparison with constants of Gen/Tables.v) accepts only the sixteen spellings of xn--.
   Bit-level proof: the four bytes are read back from the little-endian word.  The converse (each of the sixteen is
   accepted) is xn_prefix_conv of Proofs/Idna_C10b_AsciiWalk.v. *)
From RU Require Import Base.Prelude Base.Utf8 Base.U32_c13 Gen.Tables Model.Punycode Model.Uts46
  Proofs.Idna_Sim Proofs.Idna_Api Proofs.Idna_Known Proofs.Idna_Hyp Proofs.Idna_Redisc.

Lemma tb_small x k n : x < 2 ^ k -> k <= n -> N.testbit x n = false.
Proof.
  intros Hx Hk. destruct (N.eq_dec x 0) as [->|Hz]; [apply N.bits_0|].
  apply N.bits_above_log2. assert (N.log2 x < k) by (apply N.log2_lt_pow2; lia). lia.
Qed.
Lemma tb_shift x s n : N.testbit (N.shiftl x s) n = if s <=? n then N.testbit x (n - s) else false.
Proof.
  destruct (s <=? n) eqn:E.
  - apply N.shiftl_spec_high'. lia.
  - apply N.shiftl_spec_low. lia.
Qed.

Definition le_word (a b c d : N) : N :=
  N.lor (N.lor (N.lor (N.shiftl d 24) (N.shiftl c 16)) (N.shiftl b 8)) a.

Lemma le_word_bits a b c d j : a < 256 -> b < 256 -> c < 256 -> d < 256 -> j < 8 ->
  N.testbit (le_word a b c d) (0 + j) = N.testbit a j /\
  N.testbit (le_word a b c d) (8 + j) = N.testbit b j /\
  N.testbit (le_word a b c d) (16 + j) = N.testbit c j /\
  N.testbit (le_word a b c d) (24 + j) = N.testbit d j.
Proof.
  intros Ha Hb Hc Hd Hj. unfold le_word. rewrite !N.lor_spec, !tb_shift.
  change 256 with (2 ^ 8) in *.
  repeat split.
  - replace (24 <=? 0 + j) with false by lia. replace (16 <=? 0 + j) with false by lia.
    replace (8 <=? 0 + j) with false by lia. cbn [orb]. f_equal; lia.
  - replace (24 <=? 8 + j) with false by lia. replace (16 <=? 8 + j) with false by lia.
    replace (8 <=? 8 + j) with true by lia. cbn [orb].
    rewrite (tb_small a 8 (8 + j) Ha) by lia. rewrite orb_false_r. f_equal; lia.
  - replace (24 <=? 16 + j) with false by lia. replace (16 <=? 16 + j) with true by lia.
    replace (8 <=? 16 + j) with true by lia. cbn [orb].
    rewrite (tb_small a 8 (16 + j) Ha) by lia. rewrite (tb_small b 8 (16 + j - 8) Hb) by lia.
    rewrite !orb_false_r. f_equal; lia.
  - replace (24 <=? 24 + j) with true by lia. replace (16 <=? 24 + j) with true by lia.
    replace (8 <=? 24 + j) with true by lia.
    rewrite (tb_small a 8 (24 + j) Ha) by lia. rewrite (tb_small b 8 (24 + j - 8) Hb) by lia.
    rewrite (tb_small c 8 (24 + j - 16) Hc) by lia.
    rewrite !orb_false_r. f_equal; lia.
Qed.

(* the byte at bit offset `off` of a word x with (x land MASK) = PREFIX *)
Definition chk (off x : N) : bool :=
  forallb (fun j => Bool.eqb (N.testbit x j && N.testbit T_IDNA_PREFIX_MASK (off + j)) (N.testbit T_IDNA_PREFIX (off + j)))
          [0; 1; 2; 3; 4; 5; 6; 7].

Lemma chk_intro off x :
  (forall j, j < 8 -> N.testbit x j && N.testbit T_IDNA_PREFIX_MASK (off + j) = N.testbit T_IDNA_PREFIX (off + j)) ->
  chk off x = true.
Proof.
  intros H. unfold chk. apply forallb_forall. intros j Hj. apply Bool.eqb_true_iff. apply H.
  cbn [In] in Hj. lia.
Qed.

Lemma chk0 : all_below 256 (fun x => implb (chk 0 x) ((x =? 120) || (x =? 88))) = true.
Proof. vm_compute. reflexivity. Qed.
Lemma chk8 : all_below 256 (fun x => implb (chk 8 x) ((x =? 110) || (x =? 78))) = true.
Proof. vm_compute. reflexivity. Qed.
Lemma chk16 : all_below 256 (fun x => implb (chk 16 x) (x =? 45)) = true.
Proof. vm_compute. reflexivity. Qed.
Lemma chk24 : all_below 256 (fun x => implb (chk 24 x) (x =? 45)) = true.
Proof. vm_compute. reflexivity. Qed.

Lemma sweep256 (p q : N -> bool) : all_below 256 (fun b => implb (p b) (q b)) = true ->
  forall c, c < 256 -> p c = true -> q c = true.
Proof.
  intros H c Hc Hp. pose proof (all_below_spec 256 (fun b => implb (p b) (q b)) H c Hc) as Hx.
  cbv beta in Hx. rewrite Hp in Hx. exact Hx.
Qed.

Theorem xn_prefix_bytes a b c d r : a < 256 -> b < 256 -> c < 256 -> d < 256 ->
  has_punycode_prefix (a :: b :: c :: d :: r) = true ->
  (a = 120 \/ a = 88) /\ (b = 110 \/ b = 78) /\ c = 45 /\ d = 45.
Proof.
  intros Ha Hb Hc Hd H. cbn [has_punycode_prefix] in H. fold (le_word a b c d) in H.
  apply N.eqb_eq in H.
  assert (HB : forall off j, N.testbit (le_word a b c d) (off + j) && N.testbit T_IDNA_PREFIX_MASK (off + j)
                             = N.testbit T_IDNA_PREFIX (off + j)).
  { intros off j. rewrite <- N.land_spec. rewrite H. reflexivity. }
  assert (H0 : chk 0 a = true).
  { apply chk_intro. intros j Hj. rewrite <- (proj1 (le_word_bits a b c d j Ha Hb Hc Hd Hj)). apply HB. }
  assert (H8 : chk 8 b = true).
  { apply chk_intro. intros j Hj. rewrite <- (proj1 (proj2 (le_word_bits a b c d j Ha Hb Hc Hd Hj))). apply HB. }
  assert (H16 : chk 16 c = true).
  { apply chk_intro. intros j Hj. rewrite <- (proj1 (proj2 (proj2 (le_word_bits a b c d j Ha Hb Hc Hd Hj)))). apply HB. }
  assert (H24 : chk 24 d = true).
  { apply chk_intro. intros j Hj. rewrite <- (proj2 (proj2 (proj2 (le_word_bits a b c d j Ha Hb Hc Hd Hj)))). apply HB. }
  pose proof (sweep256 (chk 0) (fun x => (x =? 120) || (x =? 88)) chk0 a Ha H0) as R0.
  pose proof (sweep256 (chk 8) (fun x => (x =? 110) || (x =? 78)) chk8 b Hb H8) as R8.
  pose proof (sweep256 (chk 16) (fun x => x =? 45) chk16 c Hc H16) as R16.
  pose proof (sweep256 (chk 24) (fun x => x =? 45) chk24 d Hd H24) as R24.
  cbv beta in R0, R8, R16, R24. lia.
Qed.

Theorem xn_prefix_spec : XnPrefixSpec.
Proof.
  intros ascii Hasc H.
  destruct ascii as [|a [|b [|c [|d r]]]]; try discriminate H.
  inversion Hasc as [|? ? Ha H1]; subst. inversion H1 as [|? ? Hb H2]; subst.
  inversion H2 as [|? ? Hc H3]; subst. inversion H3 as [|? ? Hd H4]; subst.
  destruct (xn_prefix_bytes a b c d r ltac:(lia) ltac:(lia) ltac:(lia) ltac:(lia) H) as (Xa & Xb & -> & ->).
  exists a, b, r. repeat split; assumption.
Qed.

(* hence the premise Redisc of the fail-fast / mark-errors simulation needs two elementary facts only:
   the adapter maps the empty text to the empty text, and upper-case letters are in the deny list *)
Theorem redisc_of_adapter A cfg deny : map_normalize A [] = [] -> DenyUpper deny -> Redisc A cfg deny.
Proof. intros H0 HD. exact (redisc_holds A cfg deny H0 HD xn_prefix_spec). Qed.
