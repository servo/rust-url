(* Proofs/C04_CostPuny.v - the cost of the Punycode ENCODER (idna/src/punycode.rs encode_into), the quadratic step the
   property text allows "capped by the documented label-length limits".
   Cost semantics of Model/Cost.v: one step per element examined.  encode_into makes one pass over the input for the
   basic code points (enc_basic); then, per iteration of `while processed < input_length` (enc_outer), one pass for the
   minimum (min_ge) and one pass of the inner `for c in input` loop (enc_inner), two steps of bookkeeping; every digit
   written is one step (they are the output, counted by its length).  The cost function follows the recursion of
   enc_outer and takes the state after each iteration from the model itself.
     encode_cost_le : steps <= |input| + (|input| + 1) (2 |input| + 2) + 1 + |output|   - quadratic, every input: the
                      upper bound matching finding F-C04-10 for the public encoder (no cap there);
     encode_cost_capped : for an input of at most 1000 scalar values (what the uts46 walks hand to the internal
                      encoder: C04_CostIdna.labels_capped) steps <= 2005 (|input| + 1) + |output| - a constant per
                      character.
   The DECODER has no cost twin (its quadratic part - insertions into the output - is capped at 2000 code units inside
   uts46: C04_punycode_cap). *)
From RU Require Import Base.Prelude Base.Utf8 Base.U32_c13 Gen.Tables Model.Punycode.

Definition plen (l : list N) : N := N.of_nat (length l).

(* the iterations of `while processed < input_length` *)
Fixpoint enc_outer_cost (fuel : nat) (cfg_debug external : bool) (input : list N) (input_length basic_length : N)
    (code_point delta bias processed : N) : N :=
  if processed <? input_length then
    match fuel with
    | O => 1
    | Datatypes.S f =>
        2 + 2 * plen input
        + match min_ge code_point input with
          | None => 0
          | Some min_code_point =>
              match rbind (caller_mul cfg_debug external 413 (min_code_point - code_point) (processed + 1)) (fun product =>
                    rbind (caller_add cfg_debug external 413 delta product) (fun delta =>
                    enc_inner cfg_debug external input min_code_point basic_length delta bias processed)) with
              | Ok (delta, bias, processed, _) =>
                  match unchecked_add cfg_debug 451 delta 1 with
                  | Ok delta => enc_outer_cost f cfg_debug external input input_length basic_length
                                               (min_code_point + 1) delta bias processed
                  | _ => 0
                  end
              | _ => 0
              end
          end
    end
  else 1.

Definition out_len (r : res (list N)) : N := match r with Ok o => plen o | _ => 0 end.

Definition encode_cost (cfg_debug external : bool) (input : list N) : N :=
  plen input
  + match enc_basic input 0 0 with
    | None => 0
    | Some (input_length, basic_length, _) =>
        enc_outer_cost (Datatypes.S (List.length input)) cfg_debug external input input_length basic_length
                       INITIAL_N 0 INITIAL_BIAS basic_length
    end
  + out_len (encode_into cfg_debug external input).

Lemma enc_outer_cost_le fuel cfg ext input il bl : forall cp delta bias processed,
  enc_outer_cost fuel cfg ext input il bl cp delta bias processed <= N.of_nat fuel * (2 * plen input + 2) + 1.
Proof.
  induction fuel as [|f IH]; intros cp delta bias processed; cbn [enc_outer_cost].
  - destruct (processed <? il); lia.
  - destruct (processed <? il); [|lia].
    rewrite Nat2N.inj_succ.
    destruct (min_ge cp input) as [m|]; [|lia].
    match goal with |- context [match ?x with Ok _ => _ | Err => _ | Panic _ => _ end] => destruct x as [[[[d b] p] o]| |] end; [|lia|lia].
    destruct (unchecked_add cfg 451 d 1) as [d'| |]; [|lia|lia].
    specialize (IH (m + 1) d' b p). lia.
Qed.

(* quadratic upper bound, every input, both callers *)
Theorem encode_cost_le cfg ext input :
  encode_cost cfg ext input
  <= plen input + (plen input + 1) * (2 * plen input + 2) + 1 + out_len (encode_into cfg ext input).
Proof.
  unfold encode_cost. destruct (enc_basic input 0 0) as [[[il bl] basic]|]; [|lia].
  pose proof (enc_outer_cost_le (Datatypes.S (length input)) cfg ext input il bl INITIAL_N 0 INITIAL_BIAS bl) as H.
  rewrite Nat2N.inj_succ in H. unfold plen in *. lia.
Qed.

(* with the cap of the internal caller: a constant per character *)
Theorem encode_cost_capped cfg ext input : plen input <= 1000 ->
  encode_cost cfg ext input <= 2005 * (plen input + 1) + out_len (encode_into cfg ext input).
Proof. intros Hc. pose proof (encode_cost_le cfg ext input) as H. nia. Qed.

Lemma outer_le_cost cfg ext input :
  match enc_basic input 0 0 with
  | Some (il, bl, _) => enc_outer_cost (Datatypes.S (List.length input)) cfg ext input il bl INITIAL_N 0 INITIAL_BIAS bl
  | None => 0
  end <= encode_cost cfg ext input.
Proof. unfold encode_cost. destruct (enc_basic input 0 0) as [[[il bl] b]|]; lia. Qed.

(* finding F-C04-10 in the cost model: n pairwise distinct non-ASCII code points make n iterations of two passes each *)
Fixpoint distinct_cjk (n : nat) : list N :=
  match n with O => [] | Datatypes.S k => (19968 + N.of_nat k) :: distinct_cjk k end.

Lemma f_c04_10_quadratic_50_100_200 :
  2 * 50 * 50 <= encode_cost false true (distinct_cjk 50)
  /\ 2 * 100 * 100 <= encode_cost false true (distinct_cjk 100)
  /\ 2 * 200 * 200 <= encode_cost false true (distinct_cjk 200)
  /\ encode_cost false true (map (fun _ => 19968) (distinct_cjk 200)) <= 5 * 200 + 20.
Proof.
  (* the lower bounds count the iterations only: the output is not evaluated for them *)
  repeat split; try (eapply N.le_trans; [|apply outer_le_cost]); vm_compute; discriminate.
Qed.
