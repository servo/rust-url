(* Proofs/C02_File.v - class (v) of DESIGN B.5, the file scheme: a fifth canonical form and L3 for it.
   Canonical file record (outside Known_file_drive):  "file://" [host] path ["?" q] ["#" f]  with
     - no host (host kind None, empty host text) or a host that is not "localhost", whose display is a host text
       that parses back to it and is not a drive letter,
     - a path "/" seg "/" ... "/" last whose segments are canonical for a special scheme (good_seg_sp: clean for the
       path set, no '/', no '\\', no dot segment) and do not begin like a drive letter (wdl_like: the test of
       Known_file_drive), the first of several segments not empty (the path loop collapses leading slashes),
     - a query clean for the special query set, a fragment clean for the fragment set.
   file_loop_canon: the file path loop pushes such a path unchanged (no drive-letter arm fires);
   reparse_file_form: parsing the serialization of a canonical file record gives the record back (L3). *)
From Coq Require Import String.
From RU Require Import Base.Prelude Gen.Tables Model.HostT Model.UrlRecord Model.Parser Proofs.ListN Proofs.C02_Enc
  Proofs.C02_Parts Proofs.C02_Opaque Proofs.C02_Path Proofs.C02_PathL1 Proofs.C02_Reach Proofs.C02_AuthParts
  Proofs.C02_Auth Proofs.C02_PathSp Proofs.C02_SetQF Proofs.C02_Canon.
Open Scope N_scope.
Open Scope list_scope.

Definition fseg_ok (s : list N) : bool := good_seg_sp s && negb (wdl_like s).

Lemma fseg_ok_sp s : fseg_ok s = true -> good_seg_sp s = true.
Proof. unfold fseg_ok. intros H. apply andb_true_iff in H. tauto. Qed.
Lemma fseg_ok_like s : fseg_ok s = true -> wdl_like s = false.
Proof. unfold fseg_ok. intros H. apply andb_true_iff in H. destruct H as [_ H]. apply negb_true_iff in H. exact H. Qed.
Lemma fsegs_ok_sp segs : forallb fseg_ok segs = true -> forallb good_seg_sp segs = true.
Proof. apply forallb_impl. exact fseg_ok_sp. Qed.

Lemma is_wdl_like s : is_wdl s = true -> wdl_like s = true.
Proof.
  unfold is_wdl, starts_with_wdl, wdl_like. destruct s as [|a [|b r]]; cbn [length Nat.eqb andb]; try discriminate.
  intros H. apply andb_true_iff in H. destruct H as [_ H]. apply andb_true_iff in H. destruct H as [H _]. exact H.
Qed.
Lemma not_like_not_wdl s : wdl_like s = false -> is_wdl s = false.
Proof. intros H. destruct (is_wdl s) eqn:E; [|reflexivity]. rewrite (is_wdl_like s E) in H. discriminate H. Qed.

Lemma nwdl_head_not_alpha_f a X : is_alpha a = false -> is_normalized_wdl (a :: X) = false.
Proof.
  intros H. unfold is_normalized_wdl, is_wdl, starts_with_wdl. destruct X as [|b [|c r]]; cbn [length Nat.eqb andb]; try reflexivity.
  rewrite H. reflexivity.
Qed.
Lemma nwdl_second_f a b X : (b =? 58) = false -> is_normalized_wdl (a :: b :: X) = false.
Proof. intros H. unfold is_normalized_wdl. rewrite H. apply andb_false_r. Qed.
Lemma nwdl_long_f a b c X : is_normalized_wdl (a :: b :: c :: X) = false.
Proof. reflexivity. Qed.
Lemma nwdl_segs_text_f segs : is_normalized_wdl (segs_text segs) = false.
Proof.
  destruct segs as [|s r]; [reflexivity|].
  unfold segs_text. cbn [map concat]. rewrite <- !app_assoc.
  destruct s as [|x [|y s']]; cbn [app].
  - apply nwdl_head_not_alpha_f. reflexivity.
  - apply nwdl_second_f. reflexivity.
  - destruct s' as [|z s'']; cbn [app]; apply nwdl_long_f.
Qed.

(* the file path loop on canonical text *)
Section FileLoop.
Variable dbg : bool.
Variable pre : list N.
Notation ps := (nlen pre).
Notation loop := (parse_path_loop dbg CUrlParser STFile ps).
Notation BsP := (Bs pre).

Lemma Bs_skip segs : nskipn (ps + 1) (BsP segs) = segs_text segs.
Proof.
  unfold Bs. replace (ps + 1) with (nlen (pre ++ [47])) by (rewrite nlen_app; reflexivity).
  apply nskipn_app_len.
Qed.

Lemma Bs_no_drive_arm segs : drive_arm STFile ps (BsP segs) = false.
Proof. unfold drive_arm. rewrite Bs_skip, nwdl_segs_text_f. apply andb_false_r. Qed.

Lemma floop_plain c r done ss pend hh : is_tnl c = false -> (c =? 47) = false -> (c =? 92) = false -> is_qh c = false ->
  loop (c :: r) (BsP done) ss pend hh = loop r (BsP done) ss (c :: pend) hh.
Proof.
  intros Ht Hs Hb Hq. apply loop_plain; try assumption; [|apply Bs_no_drive_arm].
  rewrite sep_special by reflexivity. rewrite Hs, Hb. reflexivity.
Qed.

Lemma floop_slash r ser ss pend hh :
  loop (47 :: r) ser ss pend hh
  = (' (s2, hh') <~ finish_segment dbg STFile ps (push_pending CUrlParser STFile ser pend ++ [47]) ss true hh ;;
     loop r s2 (nlen s2) [] hh').
Proof. reflexivity. Qed.

Lemma finish_plain_f ser ss (ews : bool) hh seg :
  slice_o ser ss (if ews then nlen ser - 1 else nlen ser) = Some seg ->
  is_double_dot seg = false -> is_single_dot seg = false -> is_wdl seg = false ->
  finish_segment dbg STFile ps ser ss ews hh = POk (ser, hh).
Proof.
  intros Hs Hd Hsd Hw. apply (finish_keep dbg STFile ps ser ss ews hh seg Hs Hd Hsd). rewrite Hw. apply andb_false_r.
Qed.

(* L3 for the file path loop: canonical text is pushed unchanged; what is left is the collapse of leading slashes *)
Theorem file_loop_canon segs : forall done last rest hh,
  forallb fseg_ok segs = true -> fseg_ok last = true ->
  match rest with [] => True | c :: _ => is_qh c = true /\ is_tnl c = false end ->
  loop (segs_text segs ++ last ++ rest) (BsP done) (nlen (BsP done)) [] hh
  = POk (file_path_fixup STFile ps (BsP (done ++ segs) ++ last), hh, rest).
Proof.
  intros done last rest hh Hsegs Hlast Hrest. rewrite Bs_app, <- app_assoc.
  apply (loop_canon dbg STFile ps fseg_ok); try assumption.
  - intros s H. apply (good_seg_sp_parts s (fseg_ok_sp s H)).
  - intros s H. apply good_seg_sp_plain; [reflexivity | exact (fseg_ok_sp s H)].
  - intros s ss H. destruct (good_seg_sp_parts s (fseg_ok_sp s H)) as (_ & _ & Hsd & Hdd). repeat split; try assumption.
    rewrite (not_like_not_wdl s (fseg_ok_like s H)). apply andb_false_r.
  - intros X. rewrite <- Bs_app. apply Bs_no_drive_arm.
Qed.

(* the collapse of leading slashes leaves  pre "/" body  alone when body does not start with '/' ... *)
Lemma fixup_id body : match body with [] => True | c :: _ => (c =? 47) = false end ->
  file_path_fixup STFile ps (pre ++ 47 :: body) = pre ++ 47 :: body.
Proof.
  intros H. unfold file_path_fixup. cbn [st_is_file]. rewrite nskipn_app_len, nfirstn_app_len.
  cbn [app drop_while]. replace (is_slash 47) with true by reflexivity.
  destruct body as [|c r]; [reflexivity|]. cbn [drop_while]. unfold is_slash. rewrite H. reflexivity.
Qed.
(* ... and removes the one extra slash of  pre "//" body *)
Lemma fixup_one body : match body with [] => True | c :: _ => (c =? 47) = false end ->
  file_path_fixup STFile ps (pre ++ 47 :: 47 :: body) = pre ++ 47 :: body.
Proof.
  intros H. unfold file_path_fixup. cbn [st_is_file]. rewrite nskipn_app_len, nfirstn_app_len.
  cbn [app drop_while]. replace (is_slash 47) with true by reflexivity.
  destruct body as [|c r]; [reflexivity|]. cbn [drop_while]. unfold is_slash. rewrite H. reflexivity.
Qed.
End FileLoop.

(* the file host state on canonical text *)
Definition path_head (X : list N) : Prop :=
  match X with [] => True | c :: _ => is_tnl c = false /\ is_path_end c = true end.

Lemma file_host_scan_plain t : forall acc X, forallb (plainc true) t = true -> path_head X ->
  file_host_scan acc (t ++ X) = (rev acc ++ t, X).
Proof.
  induction t as [|c t IH]; intros acc X Hf HX.
  - cbn [app]. rewrite app_nil_r. destruct X as [|x X']; [reflexivity|]. destruct HX as [Ht He].
    cbn [file_host_scan]. rewrite Ht, He. reflexivity.
  - cbn [forallb] in Hf. apply andb_true_iff in Hf. destruct Hf as [Hc Hf].
    assert (is_tnl c = false /\ is_path_end c = false) as [Ht He].
    { unfold plainc, auth_delim, is_path_end, is_tnl in *. split; lia. }
    cbn [app file_host_scan]. rewrite Ht, He. rewrite (IH (c :: acc) X Hf HX). cbn [rev]. rewrite <- app_assoc. reflexivity.
Qed.

Lemma inp_split_first_cons c r : is_tnl c = false -> inp_split_first (c :: r) = (Some c, r).
Proof. intros H. unfold inp_split_first. rewrite inp_next_cons by exact H. reflexivity. Qed.

Lemma hi_of_host_none h : h <> HDomain [] -> hi_eqb (hi_of_host h) HI_None = false.
Proof. destruct h as [[|c d]| |]; intros H; try reflexivity. exfalso. apply H. reflexivity. Qed.

Section FileForm.
Variable dbg : bool.
Variable hp hpo : list N -> result host.
Variable hd : host -> list N.

Definition fhost_text (ho : option host) : list N := match ho with Some h => hd h | None => [] end.
Definition fhost_hi (ho : option host) : host_internal := match ho with Some h => hi_of_host h | None => HI_None end.
Definition file_front (ho : option host) : list N := s_file_css ++ fhost_text ho.
Definition file_pre (ho : option host) (T : list N) : list N := file_front ho ++ T.
Definition file_ser (ho : option host) (T : list N) (q f : option (list N)) : list N := file_pre ho T ++ qf_text q f.
Definition file_curl (ho : option host) (T : list N) (q f : option (list N)) : url :=
  qf_url (file_pre ho T) 4 7 7 (nlen (file_front ho)) (fhost_hi ho) None (nlen (file_front ho)) q f.

(* canonical file host: none, or a host other than the empty one and "localhost" whose display is a host text, is
   above U+0020, is no drive letter and parses back to the host *)
Definition fhost_ok (ho : option host) : Prop :=
  match ho with
  | None => True
  | Some h => h <> HDomain [] /\ h <> HDomain s_localhost /\ C02_Reach.host_text_ok (hd h) /\ hp (hd h) = Ok h
              /\ forallb above_space (hd h) = true /\ is_wdl (hd h) = false
  end.

Record file_ok (ho : option host) (segs : list (list N)) (last : list N) (q f : option (list N)) : Prop := mk_file_ok {
  fk_host : fhost_ok ho;
  fk_segs : forallb fseg_ok segs = true;
  fk_last : fseg_ok last = true;
  fk_first : match segs with [] => True | s :: _ => s <> [] end;
  fk_q : opt_clean T_SPECIAL_QUERY q;
  fk_f : opt_clean T_FRAGMENT f;
  fk_b1 : nlen (file_front ho) <= U32_MAX_P;
  fk_bq : opt_le (qf_qs (nlen (file_pre ho (path_text segs last))) q) U32_MAX_P;
  fk_bf : opt_le (qf_fs (nlen (file_pre ho (path_text segs last))) q f) U32_MAX_P
}.

(* the three offset bounds follow from a bound on the whole serialization *)
Lemma file_bounds_of_len ho T q f : nlen (file_ser ho T q f) <= U32_MAX_P ->
  nlen (file_front ho) <= U32_MAX_P /\ opt_le (qf_qs (nlen (file_pre ho T)) q) U32_MAX_P
  /\ opt_le (qf_fs (nlen (file_pre ho T)) q f) U32_MAX_P.
Proof.
  intros Kb. destruct (qf_bounds (file_pre ho T) q f _ Kb) as [Bq Bf]. split; [|split; assumption].
  unfold file_ser, file_pre in Kb. rewrite !nlen_app in Kb. lia.
Qed.

Lemma fhost_plain ho : fhost_ok ho -> forallb (plainc true) (fhost_text ho) = true /\ is_wdl (fhost_text ho) = false
  /\ forallb above_space (fhost_text ho) = true.
Proof.
  destruct ho as [h|]; cbn [fhost_ok fhost_text]; [|intros _; repeat split; reflexivity].
  intros (_ & _ & Ht & _ & Ha & Hw). destruct (host_text_facts (hd h) Ht) as [Hf _]. repeat split; assumption.
Qed.

Lemma pfh_none ser X : path_head X -> parse_file_host hp hd ser X = POk (ser, false, HI_None, X).
Proof.
  intros HX. unfold parse_file_host, file_host.
  pose proof (file_host_scan_plain [] [] X eq_refl HX) as E. cbn [app rev] in E. rewrite E. reflexivity.
Qed.

Lemma pfh_some ser h X : fhost_ok (Some h) -> path_head X ->
  parse_file_host hp hd ser (hd h ++ X) = POk (ser ++ hd h, true, hi_of_host h, X).
Proof.
  intros K HX. destruct (fhost_plain (Some h) K) as (Hf & Hw & _). cbn [fhost_text] in *.
  destruct K as (Hne & Hnl & Ht & Hp & _ & _).
  unfold parse_file_host, file_host.
  pose proof (file_host_scan_plain (hd h) [] X Hf HX) as E. cbn [app rev] in E. rewrite E. rewrite Hw.
  destruct Ht as (_ & Hnn & _).
  remember (hd h) as t eqn:Et. destruct t as [|c t']; [exfalso; apply Hnn; reflexivity|].
  rewrite Hp. cbn [of_result pbind]. rewrite <- Et.
  destruct h as [d| |]; try reflexivity.
  destruct (list_eqb d s_localhost) eqn:El; [|reflexivity].
  exfalso. apply Hnl. apply list_eqb_spec in El. rewrite El. reflexivity.
Qed.

Lemma fseg_first_not_slash segs last : forallb fseg_ok segs = true -> fseg_ok last = true ->
  match segs with [] => True | s :: _ => s <> [] end ->
  match segs_text segs ++ last with [] => True | c :: _ => (c =? 47) = false end.
Proof.
  assert (forall s, fseg_ok s = true -> match s with [] => True | c :: _ => (c =? 47) = false end) as G.
  { intros [|c s'] H; [exact I|]. destruct (good_seg_sp_parts _ (fseg_ok_sp _ H)) as (_ & Hn & _).
    unfold no_slash in Hn. cbn [forallb] in Hn. apply andb_true_iff in Hn. destruct Hn as [Hn _]. apply negb_true_iff in Hn. exact Hn. }
  intros Hs Hl Hf. destruct segs as [|[|c s'] r]; [exact (G last Hl) | exfalso; apply Hf; reflexivity|].
  cbn [forallb] in Hs. apply andb_true_iff in Hs. exact (G (c :: s') (proj1 Hs)).
Qed.

Lemma file_front_len ho : nlen (file_front ho) = 7 + nlen (fhost_text ho).
Proof. unfold file_front. rewrite nlen_app. reflexivity. Qed.

(* the path state of a file URL on canonical text: both entries (with and without a host) *)
Lemma file_path_nohost segs last q f hh :
  forallb fseg_ok segs = true -> fseg_ok last = true -> match segs with [] => True | s :: _ => s <> [] end ->
  parse_path dbg CUrlParser STFile hh (nlen s_file_css) (s_file_css ++ [47]) (path_text segs last ++ qf_text q f)
  = POk (s_file_css ++ path_text segs last, hh, qf_text q f).
Proof.
  intros Hs Hl Hf. unfold parse_path.
  pose proof (file_loop_canon dbg s_file_css ([] :: segs) [] last (qf_text q f) hh) as E.
  cbn [forallb] in E. specialize (E Hs Hl (qf_text_qh q f)).
  assert (Bs s_file_css [] = s_file_css ++ [47]) as E0 by (unfold Bs; cbn [segs_text map concat]; apply app_nil_r).
  rewrite E0 in E.
  assert (segs_text ([] :: segs) ++ last ++ qf_text q f = path_text segs last ++ qf_text q f) as E1.
  { unfold path_text, segs_text. cbn [map concat app]. rewrite <- app_assoc. reflexivity. }
  rewrite E1 in E. rewrite E. f_equal. f_equal. f_equal.
  assert (Bs s_file_css ([] ++ [] :: segs) ++ last = s_file_css ++ 47 :: 47 :: segs_text segs ++ last) as E2.
  { unfold Bs, segs_text. cbn [map concat app]. rewrite <- !app_assoc. reflexivity. }
  rewrite E2. unfold path_text. apply fixup_one. apply fseg_first_not_slash; assumption.
Qed.

Lemma file_path_host pre segs last q f hh :
  forallb fseg_ok segs = true -> fseg_ok last = true -> match segs with [] => True | s :: _ => s <> [] end ->
  parse_path dbg CUrlParser STFile hh (nlen pre) (pre ++ [47]) ((segs_text segs ++ last) ++ qf_text q f)
  = POk (pre ++ path_text segs last, hh, qf_text q f).
Proof.
  intros Hs Hl Hf. unfold parse_path.
  pose proof (file_loop_canon dbg pre segs [] last (qf_text q f) hh Hs Hl (qf_text_qh q f)) as E.
  assert (Bs pre [] = pre ++ [47]) as E0 by (unfold Bs; cbn [segs_text map concat]; apply app_nil_r).
  rewrite E0 in E. rewrite <- app_assoc. rewrite E. f_equal. f_equal. f_equal.
  cbn [app]. unfold Bs. rewrite <- !app_assoc. cbn [app]. unfold path_text. apply fixup_id.
  apply fseg_first_not_slash; assumption.
Qed.

(* L3 for the class *)
Theorem reparse_file_form ho segs last q f : file_ok ho segs last q f ->
  parse_url dbg hp hpo hd None None (file_ser ho (path_text segs last) q f)
  = POk (file_curl ho (path_text segs last) q f).
Proof.
  intros K. destruct K as [Kh Ksegs Klast Kfirst Kq Kf Bfront Bq Bf].
  set (T := path_text segs last) in *. set (body := segs_text segs ++ last).
  assert (T = 47 :: body) as ET by reflexivity.
  destruct (fhost_plain ho Kh) as (Hplain & Hnw & Habove).
  assert (forallb above_space body = true) as Hbody.
  { unfold body. rewrite forallb_app, (segs_text_above segs (good_segs_sp_good segs (fsegs_ok_sp segs Ksegs))).
    rewrite (good_seg_above last (good_seg_sp_good last (fseg_ok_sp last Klast))). reflexivity. }
  assert (file_ser ho T q f = s_file ++ 58 :: 47 :: 47 :: fhost_text ho ++ T ++ qf_text q f) as Eser.
  { unfold file_ser, file_pre, file_front, s_file_css, s_css. rewrite <- !app_assoc. reflexivity. }
  assert (edge_ok (file_ser ho T q f)) as He.
  { apply all_above_edge. rewrite Eser. rewrite forallb_app. apply andb_true_iff. split; [reflexivity|].
    cbn [forallb]. rewrite !forallb_app. rewrite Habove, (qf_text_above_set T_SPECIAL_QUERY q f kept_SQUERY_above Kq Kf). rewrite ET. cbn [forallb].
    rewrite Hbody. reflexivity. }
  assert (path_head (T ++ qf_text q f)) as HXT by (rewrite ET; split; reflexivity).
  unfold parse_url. rewrite trim_c0_id by exact He. rewrite Eser.
  rewrite parse_scheme_canon by reflexivity.
  unfold parse_with_scheme. change (nlen s_file) with 4. change (to_u32 4) with (POk 4). cbn [pbind].
  change (scheme_type_of s_file) with STFile. cbv iota beta.
  unfold parse_file. rewrite (inp_split_first_cons 47) by reflexivity.
  change (is_slash_or_bslash 47) with true. cbv iota beta.
  rewrite (inp_split_first_cons 47) by reflexivity.
  change (is_slash_or_bslash 47) with true. cbv iota beta.
  assert (parse_query_and_fragment None CUrlParser STFile 4 (file_pre ho T) (qf_text q f)
          = POk (file_pre ho T ++ qf_text q f, qf_qs (nlen (file_pre ho T)) q, qf_fs (nlen (file_pre ho T)) q f)) as Hpqf.
  { apply pqf_canon; try assumption. reflexivity. }
  destruct ho as [h|].
  - (* a host *)
    cbn [fhost_text] in *. rewrite (pfh_some s_file_css h (T ++ qf_text q f) Kh HXT). cbn [pbind].
    rewrite to_u32_ok by exact Bfront. cbn [pbind].
    destruct Kh as (Hne & Hnl & Ht & Hp & _ & _).
    rewrite (hi_of_host_none h Hne). cbn [negb].
    unfold parse_path_start. rewrite ET. cbn [app]. rewrite (inp_split_first_cons 47) by reflexivity.
    cbn [st_is_special]. rewrite (host_text_last (hd h) s_file_css Ht). cbn [negb].
    change (is_slash_or_bslash 47) with true. cbv iota beta.
    change (s_file_css ++ hd h) with (file_front (Some h)). unfold body.
    rewrite (file_path_host (file_front (Some h)) segs last q f true Ksegs Klast Kfirst). cbn [pbind negb].
    fold T. fold (file_pre (Some h) T). rewrite Hpqf. cbn [pbind].
    unfold file_curl, file_url, qf_url. cbn [fhost_hi]. reflexivity.
  - (* no host *)
    cbn [fhost_text app] in *. rewrite (pfh_none s_file_css (T ++ qf_text q f) HXT). cbn [pbind].
    change (to_u32 (nlen s_file_css)) with (POk 7). cbn [pbind hi_eqb negb].
    change 7 with (nlen s_file_css) at 1.
    unfold T. rewrite (file_path_nohost segs last q f false Ksegs Klast Kfirst). cbn [pbind negb].
    fold T. rewrite nfirstn_nskipn.
    change (s_file_css ++ T) with (file_pre None T). rewrite Hpqf. cbn [pbind].
    unfold file_curl, file_url, qf_url. cbn [fhost_hi]. reflexivity.
Qed.

End FileForm.
