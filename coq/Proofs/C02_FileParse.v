(* Proofs/C02_FileParse.v - L1 for parse_file without a base: every result of Url::parse on an input with the file
   scheme (any encoding override, no base) that is outside Known_file_drive is a canonical file record (FileCanon),
   hence a fixpoint of re-parsing.
   The three entries of parse_file (two slashes: file host state; one slash; no slash) all reach the path loop on
     pre "/"   with pre = "file://" [host]
   whose output is characterised by C02_FileL1.loop_inv_f: the collapse of a canonical path (fixup_norm: the
   collapse is again  pre "/" seg "/" ... "/" last  with the first of several segments not empty), or a path that
   begins with a normalised drive letter - which Known_file_drive contains (drive_known).
   Host clauses used: HostRT, host_above, "Host::parse never returns the empty host" (first clause of host_nonempty)
   and the clause host_no_wdl: the display of a parsed host is no drive letter ('|' and ':' are forbidden host
   code points; proved of Model/Host.v in C02_FileHost.v). *)
From RU Require Import Base.Prelude Gen.Tables Model.HostT Model.UrlRecord Model.Parser Proofs.ListN
  Proofs.C02_Parts Proofs.C02_Opaque Proofs.C02_Path Proofs.C02_PathL1 Proofs.C02_Reach Proofs.C02_AuthParts
  Proofs.C02_Auth Proofs.C02_PathSp Proofs.C02_SetQF Proofs.C02_JoinPath Proofs.C02_Ovr Proofs.C02_File
  Proofs.C02_FileL1 Proofs.C02_FileCanon.
Open Scope N_scope.
Open Scope list_scope.

(* the host clause of the file scheme: the display of a parsed host is not a Windows drive letter *)
Definition host_no_wdl (hp : list N -> result host) (hd : host -> list N) : Prop :=
  forall s h, hp s = Ok h -> is_wdl (hd h) = false.

(* the collapse of leading slashes of a canonical path *)
Definition first_nonempty (segs : list (list N)) : Prop := match segs with [] => True | s :: _ => s <> [] end.

Lemma drop_slash_no_slash t : no_slash t = true -> drop_while is_slash t = t.
Proof.
  destruct t as [|c r]; [reflexivity|]. unfold no_slash. cbn [forallb]. intros H.
  apply andb_true_iff in H. destruct H as [H _]. apply negb_true_iff in H. cbn [drop_while]. unfold is_slash. rewrite H. reflexivity.
Qed.

Lemma drop_slash_segs segs : forall last, forallb good_seg_sp segs = true -> good_seg_sp last = true ->
  exists segs2 last2, drop_while is_slash (segs_text segs ++ last) = segs_text segs2 ++ last2
    /\ forallb good_seg_sp segs2 = true /\ good_seg_sp last2 = true /\ first_nonempty segs2.
Proof.
  induction segs as [|s r IH]; intros last Hs Hl.
  - exists [], last. cbn [segs_text map concat app]. split; [|repeat split; assumption].
    apply drop_slash_no_slash. exact (good_seg_sp_no_slash last Hl).
  - cbn [forallb] in Hs. apply andb_true_iff in Hs. destruct Hs as [Hs Hr].
    unfold segs_text. cbn [map concat]. fold (segs_text r). rewrite <- app_assoc.
    destruct s as [|c s'].
    + cbn [app drop_while]. replace (is_slash 47) with true by reflexivity. exact (IH last Hr Hl).
    + exists ((c :: s') :: r), last. split; [|split; [|split; [exact Hl | discriminate]]].
      * destruct (good_seg_sp_parts _ Hs) as (_ & Hn & _). unfold no_slash in Hn. cbn [forallb] in Hn.
        apply andb_true_iff in Hn. destruct Hn as [Hn _]. apply negb_true_iff in Hn.
        cbn [app drop_while]. unfold is_slash. rewrite Hn.
        unfold segs_text. cbn [map concat]. rewrite <- !app_assoc. reflexivity.
      * cbn [forallb]. rewrite Hs, Hr. reflexivity.
Qed.

Lemma fixup_norm pre segs last : forallb good_seg_sp segs = true -> good_seg_sp last = true ->
  exists segs2 last2, file_path_fixup STFile (nlen pre) (Bs pre segs ++ last) = pre ++ path_text segs2 last2
    /\ forallb good_seg_sp segs2 = true /\ good_seg_sp last2 = true /\ first_nonempty segs2.
Proof.
  intros Hs Hl. destruct (drop_slash_segs segs last Hs Hl) as (segs2 & last2 & E & G1 & G2 & G3).
  exists segs2, last2. split; [|repeat split; assumption].
  unfold file_path_fixup, Bs. cbn [st_is_file]. rewrite <- !app_assoc.
  rewrite nskipn_app_len, nfirstn_app_len. cbn [app drop_while]. replace (is_slash 47) with true by reflexivity.
  rewrite E. reflexivity.
Qed.

(* the path of a file record, Known_file_drive *)
Lemma split_on_aux_seg s : forall cur X, no_slash s = true -> split_on_aux 47 cur (s ++ X) = split_on_aux 47 (rev s ++ cur) X.
Proof.
  induction s as [|c s IH]; intros cur X H; [reflexivity|].
  unfold no_slash in H. cbn [forallb] in H. apply andb_true_iff in H. destruct H as [H1 H2]. apply negb_true_iff in H1.
  cbn [app split_on_aux]. rewrite H1. rewrite IH by exact H2. cbn [rev]. rewrite <- app_assoc. reflexivity.
Qed.

Lemma split_on_aux_segs segs : forall last, forallb no_slash segs = true -> no_slash last = true ->
  split_on_aux 47 [] (segs_text segs ++ last) = segs ++ [last].
Proof.
  induction segs as [|s r IH]; intros last Hs Hl.
  - cbn [segs_text map concat app]. rewrite <- (app_nil_r last) at 1. rewrite split_on_aux_seg by exact Hl.
    cbn [split_on_aux]. rewrite app_nil_r, rev_involutive. reflexivity.
  - cbn [forallb] in Hs. apply andb_true_iff in Hs. destruct Hs as [Hs Hr].
    unfold segs_text. cbn [map concat]. fold (segs_text r). rewrite <- !app_assoc.
    rewrite split_on_aux_seg by exact Hs. cbn [app split_on_aux]. replace (47 =? 47) with true by reflexivity.
    rewrite app_nil_r, rev_involutive. rewrite (IH last Hr Hl). reflexivity.
Qed.

Lemma split_on_path_text segs last : forallb no_slash segs = true -> no_slash last = true ->
  split_on 47 (path_text segs last) = [] :: segs ++ [last].
Proof.
  intros Hs Hl. unfold split_on, path_text. cbn [split_on_aux]. replace (47 =? 47) with true by reflexivity.
  cbn [rev]. f_equal. exact (split_on_aux_segs segs last Hs Hl).
Qed.

Lemma good_segs_sp_no_slash segs : forallb good_seg_sp segs = true -> forallb no_slash segs = true.
Proof. apply forallb_impl. exact good_seg_sp_no_slash. Qed.

Section FileRec.
Variable hd : host -> list N.
Notation file_curl := (file_curl hd).
Notation file_front := (file_front hd).
Notation file_pre := (file_pre hd).

Lemma file_curl_path ho T q f : path_of (file_curl ho T q f) = T.
Proof.
  unfold path_of, file_curl, qf_url. cbn [query_start fragment_start path_start ser].
  unfold C02_File.file_pre. rewrite <- !app_assoc.
  destruct q as [x|]; cbn [qf_qs].
  - rewrite nskipn_app_len. rewrite nlen_app. replace (nlen (file_front ho) + nlen T - nlen (file_front ho)) with (nlen T) by lia.
    apply nfirstn_app_len.
  - destruct f as [y|]; cbn [qf_fs qf_qtext].
    + rewrite nskipn_app_len. rewrite nlen_app.
      replace (nlen (file_front ho) + nlen T + nlen (@nil N) - nlen (file_front ho)) with (nlen T) by (unfold nlen; cbn [length]; lia).
      apply nfirstn_app_len.
    + rewrite nskipn_app_len. unfold qf_text. cbn [qf_qtext qf_ftext app]. apply app_nil_r.
Qed.

Lemma file_curl_is_file ho T q f : is_file (file_curl ho T q f) = true.
Proof.
  unfold is_file, scheme_of, file_curl, qf_url. cbn [scheme_end ser].
  unfold C02_File.file_pre, C02_File.file_front, s_file_css, s_css. rewrite <- !app_assoc.
  change 4 with (nlen s_file). rewrite nfirstn_app_len. reflexivity.
Qed.

Lemma file_front_none_bound : nlen (file_front None) <= U32_MAX_P.
Proof. vm_compute. discriminate. Qed.

(* Known_file_drive on a record whose path is  "/" seg "/" ... "/" last : some segment looks like a drive letter *)
Lemma known_drive_curl ho segs last q f : forallb no_slash segs = true -> no_slash last = true ->
  Known_file_drive (file_curl ho (path_text segs last) q f) = existsb wdl_like segs || wdl_like last.
Proof.
  intros Hs Hl. unfold Known_file_drive. rewrite file_curl_is_file, file_curl_path, (split_on_path_text segs last Hs Hl).
  change (existsb wdl_like ([] :: segs ++ [last])) with (existsb wdl_like (segs ++ [last])).
  rewrite existsb_app. cbn [andb existsb]. rewrite orb_false_r. reflexivity.
Qed.

Lemma forallb_fseg_ok segs : forallb fseg_ok segs = forallb good_seg_sp segs && negb (existsb wdl_like segs).
Proof.
  induction segs as [|s r IH]; [reflexivity|]. cbn [forallb existsb]. rewrite IH. unfold fseg_ok.
  destruct (good_seg_sp s), (wdl_like s), (forallb good_seg_sp r), (existsb wdl_like r); reflexivity.
Qed.

(* outside Known_file_drive the canonical segments of a file record do not begin like a drive letter *)
Lemma not_drive_fsegs ho segs last q f :
  Known_file_drive (file_curl ho (path_text segs last) q f) = false ->
  forallb good_seg_sp segs = true -> good_seg_sp last = true ->
  forallb fseg_ok segs = true /\ fseg_ok last = true.
Proof.
  intros Hk Hs Hl. rewrite (known_drive_curl ho segs last q f (good_segs_sp_no_slash segs Hs) (good_seg_sp_no_slash last Hl)) in Hk.
  apply orb_false_iff in Hk. destruct Hk as [Hk1 Hk2].
  rewrite forallb_fseg_ok. unfold fseg_ok. rewrite Hs, Hl, Hk1, Hk2. split; reflexivity.
Qed.

(* a path that begins with a normalised drive letter is inside Known_file_drive *)
Lemma drive_known ho a X q f : is_alpha a = true ->
  Known_file_drive (file_curl ho ([47; a; 58; 47] ++ X) q f) = true.
Proof.
  intros Ha. unfold Known_file_drive. rewrite file_curl_is_file, file_curl_path. cbn [andb].
  assert ((a =? 47) = false) as Ea by (unfold is_alpha, is_upper, is_lower in Ha; lia).
  unfold split_on. cbn [app split_on_aux]. rewrite Ea. replace (47 =? 47) with true by reflexivity.
  replace (58 =? 47) with false by reflexivity. cbn [rev app existsb wdl_like]. rewrite Ha. cbn [N.eqb orb andb].
  replace (58 =? 58) with true by reflexivity. reflexivity.
Qed.
End FileRec.

(* the file host scan *)
Lemma file_host_scan_out l : forall acc t rem, usv_list l -> file_host_scan acc l = (t, rem) ->
  usv_list rem /\ path_head rem.
Proof.
  induction l as [|c r IH]; intros acc t rem Hu H; cbn [file_host_scan] in H.
  - inversion H; subst. split; [constructor | exact I].
  - pose proof Hu as Hu0. apply usv_cons in Hu. destruct Hu as [Hc Hr].
    destruct (is_tnl c) eqn:Et; [exact (IH _ _ _ Hr H)|].
    destruct (is_path_end c) eqn:Ep; [|exact (IH _ _ _ Hr H)].
    inversion H; subst. split; [exact Hu0 | split; assumption].
Qed.

(* the path loop from  pre "/" *)
Section LoopOut.
Variable dbg : bool.
Variable pre : list N.
Notation ps := (nlen pre).

Definition path_good (hh : bool) (s' : list N) (hh' : bool) : Prop :=
  exists segs last, s' = pre ++ path_text segs last /\ forallb good_seg_sp segs = true /\ good_seg_sp last = true
    /\ first_nonempty segs /\ (hh' = hh \/ hh' = false).
Definition path_drive (hh : bool) (s' : list N) (hh' : bool) : Prop :=
  exists a X, is_alpha a = true /\ s' = pre ++ [47; a; 58; 47] ++ X.

(* the loop from  pre "/" seg "/" ... "/" *)
Lemma loop_out_segs l segs hh s' hh' rem : usv_list l -> forallb good_seg_sp segs = true ->
  parse_path_loop dbg CUrlParser STFile ps l (Bs pre segs) (nlen (Bs pre segs)) [] hh = POk (s', hh', rem) ->
  usv_list rem /\ (path_good hh s' hh' \/ path_drive hh s' hh').
Proof.
  intros Hu Hs H. rewrite <- (app_nil_r (Bs pre segs)) in H at 1.
  destruct (loop_inv_f pre dbg l segs [] [] hh s' hh' rem Hu pend_nil_ok Hs eq_refl eq_refl eq_refl (fun _ => eq_refl) H) as [R1 R2].
  split; [rewrite R1; apply usv_cbb_rest; exact Hu|].
  destruct R2 as [(segs' & last' & -> & G1 & G2 & G3) | (a & Ha & X & ->)].
  - left. destruct (fixup_norm pre segs' last' G1 G2) as (segs2 & last2 & E & F1 & F2 & F3).
    exists segs2, last2. rewrite E. repeat split; assumption.
  - right. exists a, X. split; [exact Ha|]. unfold P0. rewrite <- app_assoc. reflexivity.
Qed.

Lemma loop_out l hh s' hh' rem : usv_list l ->
  parse_path_loop dbg CUrlParser STFile ps l (pre ++ [47]) (nlen (pre ++ [47])) [] hh = POk (s', hh', rem) ->
  usv_list rem /\ (path_good hh s' hh' \/ path_drive hh s' hh').
Proof. intros Hu H. rewrite Bs_start in H. exact (loop_out_segs l [] hh s' hh' rem Hu eq_refl H). Qed.

(* one leading slash: the path state sees the slash itself *)
Lemma loop_one_slash l : forall c af hh, inp_split_first l = (Some c, af) -> is_slash_or_bslash c = true ->
  parse_path_loop dbg CUrlParser STFile ps l pre ps [] hh
  = parse_path_loop dbg CUrlParser STFile ps af (pre ++ [47]) (nlen (pre ++ [47])) [] hh.
Proof.
  induction l as [|x r IH]; intros c af hh E Hc; [discriminate E|].
  destruct (is_tnl x) eqn:Et.
  - unfold inp_split_first in E. rewrite inp_next_tnl in E by exact Et. fold (inp_split_first r) in E.
    cbn [parse_path_loop]. rewrite Et. cbn [push_pending]. exact (IH c af hh E Hc).
  - rewrite inp_split_first_cons in E by exact Et. inversion E; subst x af.
    cbn [parse_path_loop]. rewrite Et. cbn [ctx_eqb negb st_is_special andb].
    unfold is_slash_or_bslash in Hc. rewrite andb_true_r. rewrite Hc. cbn [push_pending].
    rewrite (finish_plain_f dbg pre (pre ++ [47]) ps true hh []); [reflexivity | | reflexivity | reflexivity | reflexivity].
    rewrite nlen_app. replace (ps + nlen [47] - 1) with ps by (unfold nlen; cbn [length]; lia).
    rewrite <- (app_nil_l [47]). rewrite <- (N.add_0_r ps) at 2. change 0 with (nlen (@nil N)). apply slice_mid.
Qed.
End LoopOut.

(* behind a front that does not end in '/', the path start state of a special scheme puts the '/' and enters the loop
   (a leading slash or back-slash of the input is that '/') *)
Lemma pps_special_front dbg ctx st hh ser l : st_is_special st = true -> ends_with_byte 47 ser = false -> usv_list l ->
  exists l', usv_list l' /\ parse_path_start dbg ctx st hh ser l = parse_path dbg ctx st hh (nlen ser) (ser ++ [47]) l'.
Proof.
  intros Hsp He Hl. unfold parse_path_start, inp_split_first. rewrite Hsp, He. cbn [negb].
  destruct (inp_next l) as [[c r]|] eqn:En; [destruct (is_slash_or_bslash c)|].
  - exists r. split; [exact (inp_next_usv l c r Hl En) | reflexivity].
  - exists l. split; [exact Hl | reflexivity].
  - exists l. split; [exact Hl | reflexivity].
Qed.

(* parse_file without a base *)
Section ParseFile.
Variable dbg : bool.
Variable hp hpo : list N -> result host.
Variable hd : host -> list N.
Hypothesis HRT : HostRT hp hpo hd.
Hypothesis HAb : host_above hp hpo hd.
Hypothesis HNE : forall s, hp s <> Ok (HDomain []).
Hypothesis HW : host_no_wdl hp hd.
Variable ovr : option (list N -> list N).

Notation FileCanon := (FileCanon hp hd).
Notation file_curl := (file_curl hd).
Notation file_front := (file_front hd).

(* the end of every entry: query and fragment behind  front path, the record, the class *)
Lemma file_tail ho T rem u :
  usv_list rem -> fhost_ok hp hd ho -> nlen (file_front ho) <= U32_MAX_P ->
  (' (s3, qs, fs) <~ parse_query_and_fragment ovr CUrlParser STFile 4 (file_front ho ++ T) rem ;;
   POk (file_url s3 7 (nlen (file_front ho)) (fhost_hi ho) qs fs)) = POk u ->
  exists q f, u = file_curl ho T q f /\ opt_clean T_SPECIAL_QUERY q /\ opt_clean T_FRAGMENT f
    /\ opt_le (qf_qs (nlen (file_pre hd ho T)) q) U32_MAX_P /\ opt_le (qf_fs (nlen (file_pre hd ho T)) q f) U32_MAX_P.
Proof.
  intros Hu Hh Hb H.
  destruct (parse_query_and_fragment ovr CUrlParser STFile 4 (file_front ho ++ T) rem) as [[[s3 qs] fs]| |] eqn:E;
    cbn [pbind] in H; try discriminate H.
  apply pqf_out_g in E; [|exact Hu]. destruct E as (q & f & -> & -> & -> & Bq & Bf & Cq & Cf).
  inversion H; subst u. exists q, f. repeat split; assumption.
Qed.

Lemma file_good_out ho segs last q f :
  fhost_ok hp hd ho -> nlen (file_front ho) <= U32_MAX_P ->
  forallb good_seg_sp segs = true -> good_seg_sp last = true -> first_nonempty segs ->
  opt_clean T_SPECIAL_QUERY q -> opt_clean T_FRAGMENT f ->
  opt_le (qf_qs (nlen (file_pre hd ho (path_text segs last))) q) U32_MAX_P ->
  opt_le (qf_fs (nlen (file_pre hd ho (path_text segs last))) q f) U32_MAX_P ->
  Known_file_drive (file_curl ho (path_text segs last) q f) = false ->
  FileCanon (file_curl ho (path_text segs last) q f).
Proof.
  intros Hh Hb Hs Hl Hf Cq Cf Bq Bf Hk.
  destruct (not_drive_fsegs hd ho segs last q f Hk Hs Hl) as [F1 F2].
  apply FileCanon_intro. constructor; assumption.
Qed.

Lemma file_end ho hh s2 hh2 rem u :
  fhost_ok hp hd ho -> nlen (file_front ho) <= U32_MAX_P -> usv_list rem ->
  (path_good (file_front ho) hh s2 hh2 \/ path_drive (file_front ho) hh s2 hh2) ->
  (' (s3, qs, fs) <~ parse_query_and_fragment ovr CUrlParser STFile 4 s2 rem ;;
   POk (file_url s3 7 (nlen (file_front ho)) (fhost_hi ho) qs fs)) = POk u ->
  Known_file_drive u = false -> FileCanon u.
Proof.
  intros Hh Hb Hu [(segs & last & -> & G1 & G2 & G3 & _) | (a & X & Ha & ->)] H Hk.
  - destruct (file_tail ho _ rem u Hu Hh Hb H) as (q & f & -> & Cq & Cf & Bq & Bf).
    apply file_good_out; assumption.
  - destruct (file_tail ho _ rem u Hu Hh Hb H) as (q & f & -> & _).
    rewrite (drive_known hd ho a X q f Ha) in Hk. discriminate Hk.
Qed.

(* the path loop behind  "file://" [host] "/"  as the file host state runs it: when the loop has cleared the host flag
   (a drive letter came) the host text is removed; then query and fragment *)
Lemma host_loop_end ho hh l s2 hh2 rem u : fhost_ok hp hd ho -> nlen (file_front ho) <= U32_MAX_P -> usv_list l ->
  parse_path_loop dbg CUrlParser STFile (nlen (file_front ho)) l (file_front ho ++ [47]) (nlen (file_front ho ++ [47])) [] hh
  = POk (s2, hh2, rem) ->
  (let '(ser3, host_end3, hi3) :=
     if negb hh2 then (nfirstn 7 s2 ++ nskipn (nlen (file_front ho)) s2, 7, HI_None)
     else (s2, nlen (file_front ho), fhost_hi ho) in
   ' (ser4, qs, fs) <~ parse_query_and_fragment ovr CUrlParser STFile 4 ser3 rem ;;
   POk (file_url ser4 7 host_end3 hi3 qs fs)) = POk u ->
  Known_file_drive u = false -> FileCanon u.
Proof.
  intros Hh Hb Hl E H Hk. destruct (loop_out dbg (file_front ho) l hh s2 hh2 rem Hl E) as [Hrem R].
  destruct hh2; cbn [negb] in H; [exact (file_end ho hh s2 true rem u Hh Hb Hrem R H Hk)|].
  assert (exists Y, s2 = file_front ho ++ Y) as [Y EY].
  { destruct R as [(segs & last & -> & _) | (a & X & _ & ->)]; eexists; reflexivity. }
  assert (nfirstn 7 s2 ++ nskipn (nlen (file_front ho)) s2 = file_front None ++ Y) as E3.
  { rewrite EY, nskipn_app_len. unfold C02_File.file_front. rewrite <- !app_assoc. change 7 with (nlen s_file_css).
    rewrite nfirstn_app_len. reflexivity. }
  rewrite E3 in H.
  assert (path_good (file_front None) false (file_front None ++ Y) false
          \/ path_drive (file_front None) false (file_front None ++ Y) false) as R'.
  { destruct R as [(segs & last & E2 & G1 & G2 & G3 & _) | (a & X & Ha & E2)]; rewrite EY in E2; apply app_inv_head in E2; subst Y.
    - left. exists segs, last. repeat split; try assumption. left. reflexivity.
    - right. exists a, X. split; [exact Ha | reflexivity]. }
  exact (file_end None false _ false rem u I (file_front_none_bound hd) Hrem R' H Hk).
Qed.

(* what parse_file does with the outcome of the file host scan (the code behind parse_file_host) *)
Definition fh_cont (x : list N * bool * host_internal * list N) : pres url :=
  let '(ser1, path_start_flag, hi, remaining) := x in
  host_end <~ to_u32 (nlen ser1) ;;
  ' (ser2, has_host, remaining2) <~
    (if path_start_flag
     then parse_path_start dbg CUrlParser STFile (negb (hi_eqb hi HI_None)) ser1 remaining
     else parse_path dbg CUrlParser STFile (negb (hi_eqb hi HI_None)) (nlen ser1) (ser1 ++ [47]) remaining) ;;
  let '(ser3, host_end3, hi3) :=
    if negb has_host then (nfirstn 7 ser2 ++ nskipn host_end ser2, 7, HI_None) else (ser2, host_end, hi) in
  ' (ser4, qs, fs) <~ parse_query_and_fragment ovr CUrlParser STFile 4 ser3 remaining2 ;;
  POk (file_url ser4 7 host_end3 hi3 qs fs).

Lemma fh_cont_eq ser1 (flag : bool) hi remaining :
  fh_cont (ser1, flag, hi, remaining)
  = (host_end <~ to_u32 (nlen ser1) ;;
     ' (ser2, has_host, remaining2) <~
       (if flag
        then parse_path_start dbg CUrlParser STFile (negb (hi_eqb hi HI_None)) ser1 remaining
        else parse_path dbg CUrlParser STFile (negb (hi_eqb hi HI_None)) (nlen ser1) (ser1 ++ [47]) remaining) ;;
     let '(ser3, host_end3, hi3) :=
       if negb has_host then (nfirstn 7 ser2 ++ nskipn host_end ser2, 7, HI_None) else (ser2, host_end, hi) in
     ' (ser4, qs, fs) <~ parse_query_and_fragment ovr CUrlParser STFile 4 ser3 remaining2 ;;
     POk (file_url ser4 7 host_end3 hi3 qs fs)).
Proof. reflexivity. Qed.

(* the file host state without a host (nothing before the path, a drive letter, or "localhost") *)
Lemma fhost_none_entry R u : usv_list R ->
  fh_cont (s_file_css, false, HI_None, R) = POk u ->
  Known_file_drive u = false -> FileCanon u.
Proof.
  intros HR H Hk. rewrite fh_cont_eq in H. change (to_u32 (nlen s_file_css)) with (POk 7) in H. cbn [pbind hi_eqb negb] in H.
  unfold parse_path in H.
  destruct (parse_path_loop dbg CUrlParser STFile (nlen s_file_css) R (s_file_css ++ [47]) (nlen (s_file_css ++ [47])) [] false)
    as [[[s2 hh2] rem]| |] eqn:E; cbn [pbind] in H; try discriminate H.
  exact (host_loop_end None false R s2 hh2 rem u I (file_front_none_bound hd) HR E H Hk).
Qed.

Definition not_localhost (h : host) : bool :=
  match h with HDomain d => negb (list_eqb d s_localhost) | _ => true end.

Lemma fhost_ok_parsed s h : hp s = Ok h -> not_localhost h = true -> fhost_ok hp hd (Some h).
Proof.
  intros Hp Hn. assert (h <> HDomain []) as Hne by (intros ->; exact (HNE s Hp)).
  destruct HRT as (H1 & _). destruct (H1 s h Hp Hne) as [Ht Hrt].
  cbn [fhost_ok]. split; [exact Hne|]. split; [intros ->; discriminate Hn|]. split; [exact Ht|]. split; [exact Hrt|].
  split; [exact (proj1 HAb s h Hp) | exact (HW s h Hp)].
Qed.

(* the file host state with a host *)
Lemma fhost_some_entry s h R u : hp s = Ok h -> not_localhost h = true -> usv_list R ->
  fh_cont (s_file_css ++ hd h, true, hi_of_host h, R) = POk u ->
  Known_file_drive u = false -> FileCanon u.
Proof.
  intros Hp Hn HR H Hk. pose proof (fhost_ok_parsed s h Hp Hn) as Hh.
  destruct Hh as (Hne & _ & Ht & _). rewrite fh_cont_eq in H.
  destruct (to_u32 (nlen (s_file_css ++ hd h))) as [he| |] eqn:Eu; cbn [pbind] in H; try discriminate H.
  apply to_u32_inv in Eu. destruct Eu as [-> Hb].
  rewrite (hi_of_host_none h Hne) in H. cbn [negb] in H.
  destruct (pps_special_front dbg CUrlParser STFile true (s_file_css ++ hd h) R eq_refl (host_text_last (hd h) s_file_css Ht) HR)
    as (l & Hl & E).
  rewrite E in H. unfold parse_path in H.
  destruct (parse_path_loop dbg CUrlParser STFile (nlen (s_file_css ++ hd h)) l ((s_file_css ++ hd h) ++ [47])
              (nlen ((s_file_css ++ hd h) ++ [47])) [] true) as [[[s2 hh2] rem]| |] eqn:El; cbn [pbind] in H; try discriminate H.
  exact (host_loop_end (Some h) true l s2 hh2 rem u (fhost_ok_parsed s h Hp Hn) Hb Hl El H Hk).
Qed.

Lemma inp_split_first_usv l c r : usv_list l -> inp_split_first l = (Some c, r) -> usv_list r.
Proof.
  intros Hl E. unfold inp_split_first in E. destruct (inp_next l) as [[c' r']|] eqn:En; inversion E; subst.
  exact (inp_next_usv l c r Hl En).
Qed.

Lemma pbind_POk {A B : Type} (a : A) (f : A -> pres B) : pbind (POk a) f = f a.
Proof. reflexivity. Qed.

(* the three outcomes of the file host scan *)
Lemma pfh_cases an : usv_list an ->
  (exists R, usv_list R /\ parse_file_host hp hd s_file_css an = POk (s_file_css, false, HI_None, R))
  \/ (exists s h R, usv_list R /\ hp s = Ok h /\ not_localhost h = true
        /\ parse_file_host hp hd s_file_css an = POk (s_file_css ++ hd h, true, hi_of_host h, R))
  \/ (forall x, parse_file_host hp hd s_file_css an <> POk x).
Proof.
  intros Han. unfold parse_file_host, file_host. destruct (file_host_scan [] an) as [t rem0] eqn:Esc.
  destruct (file_host_scan_out an [] t rem0 Han Esc) as [Hrem0 _].
  destruct (is_wdl t) eqn:Ew.
  - left. exists an. split; [exact Han | reflexivity].
  - destruct t as [|c0 t'].
    + left. exists rem0. split; [exact Hrem0 | reflexivity].
    + destruct (hp (c0 :: t')) as [h|e] eqn:Ehp; cbn [of_result pbind].
      * destruct (not_localhost h) eqn:En.
        -- right. left. exists (c0 :: t'), h, rem0. split; [exact Hrem0|]. split; [exact Ehp|]. split; [exact En|].
           destruct h as [d| |]; try reflexivity. unfold not_localhost in En. apply negb_true_iff in En. rewrite En. reflexivity.
        -- left. exists rem0. split; [exact Hrem0|].
           destruct h as [d| |]; try discriminate En. unfold not_localhost in En. apply negb_false_iff in En. rewrite En. reflexivity.
      * right. right. intros x. discriminate.
Qed.

(* the file host state: everything behind "file://" *)
Lemma file_host_state an u : usv_list an ->
  pbind (parse_file_host hp hd s_file_css an) fh_cont = POk u ->
  Known_file_drive u = false -> FileCanon u.
Proof.
  intros Han H Hk.
  destruct (pfh_cases an Han) as [(R & HR & E) | [(s & h & R & HR & Hp & Hn & E) | E]].
  - rewrite E, pbind_POk in H. exact (fhost_none_entry R u HR H Hk).
  - rewrite E, pbind_POk in H. exact (fhost_some_entry s h R u Hp Hn HR H Hk).
  - exfalso. destruct (parse_file_host hp hd s_file_css an) as [x| |]; [exact (E x eq_refl) | discriminate H | discriminate H].
Qed.

(* one slash: the path state sees it; the front is "file://" or, against a file base, may carry the host of the base *)
Lemma file_one_slash ho l c af u : fhost_ok hp hd ho -> nlen (file_front ho) <= U32_MAX_P -> usv_list af ->
  inp_split_first l = (Some c, af) -> is_slash_or_bslash c = true ->
  (' (ser2, _, remaining) <~ parse_path dbg CUrlParser STFile false (nlen (file_front ho)) (file_front ho) l ;;
   ' (ser3, qs, fs) <~ parse_query_and_fragment ovr CUrlParser STFile 4 ser2 remaining ;;
   POk (file_url ser3 7 (nlen (file_front ho)) (fhost_hi ho) qs fs)) = POk u ->
  Known_file_drive u = false -> FileCanon u.
Proof.
  intros Kh Kb Haf E1 Es1 H Hk. unfold parse_path in H. rewrite (loop_one_slash dbg (file_front ho) l c af false E1 Es1) in H.
  destruct (parse_path_loop dbg CUrlParser STFile (nlen (file_front ho)) af (file_front ho ++ [47]) (nlen (file_front ho ++ [47])) [] false)
    as [[[s2 hh2] rem]| |] eqn:E; cbn [pbind] in H; try discriminate H.
  destruct (loop_out dbg (file_front ho) af false s2 hh2 rem Haf E) as [Hrem R].
  exact (file_end ho false s2 hh2 rem u Kh Kb Hrem R H Hk).
Qed.

(* no slash *)
Lemma file_no_slash l u : usv_list l ->
  (' (s2, _, rem) <~ parse_path dbg CUrlParser STFile false 7 (s_file_css ++ [47]) l ;;
   ' (s3, qs, fs) <~ parse_query_and_fragment ovr CUrlParser STFile 4 s2 rem ;;
   POk (file_url s3 7 7 HI_None qs fs)) = POk u ->
  Known_file_drive u = false -> FileCanon u.
Proof.
  intros Hl H Hk. unfold parse_path in H.
  destruct (parse_path_loop dbg CUrlParser STFile 7 l (s_file_css ++ [47]) (nlen (s_file_css ++ [47])) [] false)
    as [[[s2 hh2] rem]| |] eqn:E; cbn [pbind] in H; try discriminate H.
  destruct (loop_out dbg s_file_css l false s2 hh2 rem Hl E) as [Hrem R].
  exact (file_end None false s2 hh2 rem u I (file_front_none_bound hd) Hrem R H Hk).
Qed.

(* L1 for parse_file without a base *)
Theorem parse_file_nobase l u : usv_list l ->
  parse_file dbg hp hd ovr CUrlParser STFile None l = POk u ->
  Known_file_drive u = false -> FileCanon u.
Proof.
  intros Hl H Hk. unfold parse_file in H.
  destruct (inp_split_first l) as [fc af] eqn:E1.
  destruct (match fc with Some c => is_slash_or_bslash c | None => false end) eqn:Es1.
  - destruct fc as [c|]; [|discriminate Es1]. pose proof (inp_split_first_usv l c af Hl E1) as Haf.
    destruct (inp_split_first af) as [nc an] eqn:E2.
    destruct (match nc with Some c => is_slash_or_bslash c | None => false end) eqn:Es2.
    + destruct nc as [c2|]; [|discriminate Es2]. pose proof (inp_split_first_usv af c2 an Haf E2) as Han.
      exact (file_host_state an u Han H Hk).
    + assert ((if negb (starts_with_wdl_segment af) then (s_file_css, 7, HI_None) else (s_file_css, 7, HI_None))
              = (s_file_css, 7, HI_None)) as Eif by (destruct (negb (starts_with_wdl_segment af)); reflexivity).
      rewrite Eif in H. exact (file_one_slash None l c af u I (file_front_none_bound hd) Haf E1 Es1 H Hk).
  - exact (file_no_slash l u Hl H Hk).
Qed.

(* from the input text *)
Theorem parse_file_Canon5 input sch rem u : usv_list input ->
  parse_scheme CUrlParser (input_new_trim_c0 input) = Some (sch, rem) -> scheme_type_of sch = STFile ->
  parse_url dbg hp hpo hd ovr None input = POk u ->
  Known_file_drive u = false -> FileCanon u.
Proof.
  intros Hu Hs Hst H Hk. unfold parse_url in H. rewrite Hs in H. unfold parse_with_scheme in H. rewrite Hst in H.
  destruct (to_u32 (nlen sch)) as [se| |]; cbn [pbind] in H; try discriminate H.
  exact (parse_file_nobase rem u (scheme_rem_usv input sch rem Hu Hs) H Hk).
Qed.

End ParseFile.
