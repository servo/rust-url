(* Proofs/C01_EqSpRel.v - C01 equivalence, special non-file schemes: the canonical model record
   (auth_url of Proofs/C01_EqAuth.v) with a special scheme satisfies the structural invariant, has the ten
   API strings of the Standard's record and is `related` to it: the instance `STSpecialNotFile` of
   Section Canonical of Proofs/C01_EqAuth.v; the record of side conditions asks for a special non-file
   scheme and a query that is clean for the special-query set. *)
From RU Require Import Base.Prelude Model.UrlRecord Model.Parser Spec.Whatwg Proofs.C02_Parts Proofs.C01_EqRef
  Proofs.C01_EqAuth.

(* the canonical pair is related *)
Record auth_ok_s (shs : spec_host -> list N) (sch un pw ht : list N) (hi : host_internal) (sh : spec_host)
       (po : option N) (segs : list (list N)) (q f : option (list N)) : Prop := mk_auth_ok_s_s {
  aks_sch : scheme_canon sch = true;
  aks_ns : scheme_type_of sch = STSpecialNotFile;
  aks_ht : ht = shs sh;
  aks_col : starts_with_cp 58 ht = false;
  aks_hi : hi = HI_None -> ht = [];
  aks_hp : ht = [] -> po = None;
  aks_po : forall p, po = Some p -> p <= 65535;
  aks_pt : forallb (fun c => negb ((c =? 63) || (c =? 35))) (flat_map (fun s => 47 :: s) segs) = true;
  aks_q : opt_clean (query_set STSpecialNotFile) q
}.

Lemma auth_ok_s_canon shs sch un pw ht hi sh po segs q f :
  auth_ok_s shs sch un pw ht hi sh po segs q f -> canon_ok STSpecialNotFile shs sch un pw ht hi sh po segs q f.
Proof.
  intros [? Hn ? ? ? ? ? ? ?]. constructor; try assumption.
  intros H. rewrite H in Hn. discriminate Hn.
Qed.

Section Related.
Variable dbg : bool.
Variable shs : spec_host -> list N.

Section One.
Variables (sch un pw ht : list N) (hi : host_internal) (sh : spec_host) (po : option N)
          (segs : list (list N)) (q f : option (list N)).
Hypothesis K : auth_ok_s shs sch un pw ht hi sh po segs q f.

Let pt := flat_map (fun s => 47 :: s) segs.
Let u := auth_url sch un pw ht hi po pt q f.

Theorem related_auth_s : related dbg shs u (spec_auth_url sch un pw sh po segs q f).
Proof. exact (canon_related dbg _ _ _ _ _ _ _ _ _ _ _ _ (auth_ok_s_canon _ _ _ _ _ _ _ _ _ _ _ K)). Qed.

End One.
End Related.
