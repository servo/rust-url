(* Proofs/C02_JoinTail.v - G1, first part: joins whose reference has no scheme and is (after trimming and
   tab/newline removal) empty, fragment-only ("#...") or query-led ("?..." possibly followed by "#..."),
   against a canonical base: the result is canonical again (L1 for these arms of the relative state), hence a
   fixpoint of re-parsing.  The path arms (path-absolute, path-relative, scheme-relative) are in C02_JoinPath.
   These arms only replace query and fragment inside the frame  pre [?q] [#f]  (qf_url) of the base, and parse_file does
   the same on a file base: tail_arm_frame is proved for any predicate closed under such replacements, and used for
   Canon here and for FileCanon in C02_FileSet. *)
From Coq Require Import String.
From RU Require Import Base.Prelude Base.Utf8 Gen.Tables Model.HostT Model.UrlRecord Model.Parser Model.WF
  Proofs.ListN Proofs.C06_List Proofs.C02_Enc Proofs.C02_Parts Proofs.C02_Opaque Proofs.C02_Path
  Proofs.C02_PathL1 Proofs.C02_Reach Proofs.C02_AuthParts Proofs.C02_Auth Proofs.C02_AuthWf Proofs.C02_AuthMain
  Proofs.C02_SetQF Proofs.C02_Canon.
Open Scope N_scope.
Open Scope list_scope.

(* the base as the relative state reads it *)
Section BaseQF.
Variables (pre : list N) (se ue hs he : N) (hi : host_internal) (pt : option N) (ps : N).
Notation U q f := (qf_url pre se ue hs he hi pt ps q f).

Lemma before_fragment_qf q f : b_before_fragment (U q f) = pre ++ qf_qtext q.
Proof.
  unfold b_before_fragment, qf_url. cbn [fragment_start ser]. destruct f as [y|]; cbn [qf_fs].
  - unfold qf_text. cbn [qf_ftext]. rewrite app_assoc, <- nlen_app. apply nfirstn_app_len.
  - unfold qf_text. cbn [qf_ftext]. rewrite app_nil_r. reflexivity.
Qed.

Lemma before_query_qf q f : b_before_query (U q f) = pre.
Proof.
  unfold b_before_query, qf_url. cbn [query_start fragment_start ser].
  destruct q as [x|]; cbn [qf_qs].
  - apply nfirstn_app_len.
  - destruct f as [y|]; cbn [qf_fs qf_qtext].
    + rewrite N.add_0_r. apply nfirstn_app_len.
    + unfold qf_text. cbn. rewrite app_nil_r. reflexivity.
Qed.

Lemma b_scheme_qf q f sch : nfirstn se pre = sch -> se <= nlen pre -> b_scheme (U q f) = sch.
Proof. intros E H. unfold b_scheme, qf_url. cbn [scheme_end ser]. rewrite nfirstn_app_le by exact H. exact E. Qed.

(* fragment-only reference *)
Lemma fragment_only_qf q f l u : usv_list l -> fragment_only (U q f) l = POk u ->
  exists F, u = U q (Some F) /\ clean T_FRAGMENT F = true /\ opt_le (qf_fs (nlen pre) q (Some F)) U32_MAX_P.
Proof.
  intros Hl. unfold fragment_only. rewrite before_fragment_qf.
  destruct (to_u32 (nlen (pre ++ qf_qtext q))) as [n| |] eqn:Eu; cbn [pbind]; try discriminate.
  apply to_u32_inv in Eu. destruct Eu as [-> Hb].
  assert (usv_list (match inp_next l with Some (_, r) => r | None => [] end)) as Hr.
  { destruct (inp_next l) as [[c r]|] eqn:En; [exact (inp_next_usv l c r Hl En) | constructor]. }
  rewrite parse_fragment_spec by exact Hr. intros E. inversion E; subst u. clear E.
  eexists. split; [|split; [exact (frag_of_clean _ Hr)|]].
  - unfold qf_url. cbn [scheme_end username_end host_start host_end hosti port path_start query_start].
    unfold qf_text. cbn [qf_ftext qf_fs]. rewrite nlen_app, <- !app_assoc. reflexivity.
  - cbn [qf_fs opt_le]. rewrite nlen_app in Hb. exact Hb.
Qed.
Lemma url_with_qf q0 f0 q f :
  url_with (U q0 f0) (pre ++ qf_text q f) (qf_qs (nlen pre) q) (qf_fs (nlen pre) q f) = U q f.
Proof. reflexivity. Qed.

Lemma drop_fragment_qf q f : url_with (U q f) (b_before_fragment (U q f)) (query_start (U q f)) None = U q None.
Proof.
  rewrite before_fragment_qf. unfold url_with, qf_url, qf_text.
  cbn [qf_ftext qf_fs scheme_end username_end host_start host_end hosti port path_start query_start].
  rewrite app_nil_r. reflexivity.
Qed.
End BaseQF.

Lemma qf_spec_plain ovr sch : ovr = None \/ st_is_special (scheme_type_of sch) = false ->
  forall se ser, nfirstn se ser = sch -> se <= nlen ser -> qf_spec ovr (scheme_type_of sch) se ser.
Proof.
  intros Hov se ser E L. apply qf_spec_utf8. rewrite nfirstn_app_le by exact L. rewrite E.
  destruct Hov as [-> | Hns]; [reflexivity|].
  apply query_enc_nonspecial. destruct (scheme_type_of sch); try discriminate Hns; reflexivity.
Qed.

(* the arms that keep the base's path *)
(* parse_relative and, on a file base, parse_file begin alike: an empty reference drops the fragment of the base, a
   reference led by '?' replaces query and fragment, one led by '#' the fragment *)
Definition tail_first (l : list N) : bool :=
  match inp_next l with None => true | Some (c, _) => (c =? 35) || (c =? 63) end.

Definition tail_arm (ovr : option (list N -> list N)) (st : scheme_type) (base : url) (l : list N) : pres url :=
  match inp_next l with
  | None => POk (url_with base (b_before_fragment base) (query_start base) None)
  | Some (c, _) =>
      if c =? 63 then
        ' (s, qs, fs) <~ parse_query_and_fragment ovr CUrlParser st (scheme_end base) (b_before_query base) l ;;
        POk (url_with base s qs fs)
      else fragment_only base l
  end.

Lemma parse_relative_tail dbg hp hpo hd ovr st base l : tail_first l = true ->
  parse_relative dbg hp hpo hd ovr CUrlParser st base l = tail_arm ovr st base l.
Proof.
  unfold tail_first, parse_relative, tail_arm, inp_split_first. destruct (inp_next l) as [[c r]|]; [|reflexivity].
  intros H. destruct (c =? 63); [reflexivity|]. destruct (c =? 35); [reflexivity | discriminate H].
Qed.

Lemma parse_file_tail dbg hp hd ovr base l : tail_first l = true ->
  parse_file dbg hp hd ovr CUrlParser STFile (Some base) l = tail_arm ovr STFile base l.
Proof.
  unfold tail_first, parse_file, tail_arm, inp_split_first. destruct (inp_next l) as [[c r]|]; [|reflexivity].
  intros H. destruct (c =? 63) eqn:E63; [apply N.eqb_eq in E63; subst c; reflexivity|].
  destruct (c =? 35) eqn:E35; [apply N.eqb_eq in E35; subst c; reflexivity | discriminate H].
Qed.

(* on a frame  pre [?q] [#f]  all of whose fillings with clean, bounded q and f satisfy P, every result satisfies P *)
Section TailArm.
Variables (pre : list N) (se ue hs he : N) (hi : host_internal) (pt : option N) (ps : N).
Notation U q f := (qf_url pre se ue hs he hi pt ps q f).
Variable P : url -> Prop.
Variable ovr : option (list N -> list N).
Variable st : scheme_type.
Variables q0 f0 : option (list N).
Hypothesis HQ : qf_spec ovr st se pre.
Hypothesis Hq0 : opt_clean (query_set st) q0.
Hypothesis Bq0 : opt_le (qf_qs (nlen pre) q0) U32_MAX_P.
Hypothesis Repl : forall q f, opt_clean (query_set st) q -> opt_clean T_FRAGMENT f ->
  opt_le (qf_qs (nlen pre) q) U32_MAX_P -> opt_le (qf_fs (nlen pre) q f) U32_MAX_P -> P (U q f).

Lemma tail_arm_frame l u : usv_list l -> tail_arm ovr st (U q0 f0) l = POk u -> P u.
Proof.
  intros Hl. unfold tail_arm. destruct (inp_next l) as [[c r]|].
  - destruct (c =? 63).
    + rewrite before_query_qf. change (scheme_end (U q0 f0)) with se.
      destruct (parse_query_and_fragment ovr CUrlParser st se pre l) as [[[s' qs] fs]| |] eqn:Ep; cbn [pbind]; try discriminate.
      destruct (HQ l s' qs fs Hl Ep) as (q & f & -> & -> & -> & Bq & Bf & Cq & Cf).
      intros E. injection E as <-. rewrite url_with_qf. apply Repl; assumption.
    + intros E. destruct (fragment_only_qf pre se ue hs he hi pt ps q0 f0 l u Hl E) as (F & -> & CF & BF).
      apply Repl; assumption.
  - intros E. injection E as <-. rewrite drop_fragment_qf. apply Repl; try assumption; exact I.
Qed.
End TailArm.

Section JoinTail.
Variable dbg : bool.
Variable hp hpo : list N -> result host.
Variable hd : host -> list N.
Hypothesis HRT : HostRT hp hpo hd.

(* a canonical record seen as a frame in which query and fragment can be replaced *)
Definition qf_view (u : url) : Prop :=
  exists pre se ue hs he hi pt ps sch (cbb : bool) q0 f0,
    u = qf_url pre se ue hs he hi pt ps q0 f0
    /\ nfirstn se pre = sch /\ se <= nlen pre /\ st_is_file (scheme_type_of sch) = false
    /\ cannot_be_a_base u = Some cbb
    /\ opt_clean (query_set (scheme_type_of sch)) q0 /\ opt_le (qf_qs (nlen pre) q0) U32_MAX_P
    /\ (forall q f, opt_clean (query_set (scheme_type_of sch)) q -> opt_clean T_FRAGMENT f ->
          opt_le (qf_qs (nlen pre) q) U32_MAX_P -> opt_le (qf_fs (nlen pre) q f) U32_MAX_P ->
          (cbb = true -> q = None -> f = None -> False) ->
          Canon hp hpo hd (qf_url pre se ue hs he hi pt ps q f)).

Lemma auth_view st sch ui h pt p q0 f0 : auth_ok hp hpo hd st sch ui h pt p q0 f0 -> st_is_file st = false ->
  (forall q f, auth_ok hp hpo hd st sch ui h pt p q f -> Canon hp hpo hd (auth_url hd sch ui h pt p q f)) ->
  qf_view (auth_url hd sch ui h pt p q0 f0).
Proof.
  intros K Hnf HC. destruct (auth_pre_sch hd sch ui h pt p) as [S1 S2].
  exists (auth_pre hd sch ui h pt p), (nlen sch), (nlen sch + 3 + ui_ulen ui), (nlen sch + 3 + nlen (ui_text ui)),
    (nlen sch + 3 + nlen (ui_text ui) + nlen (hd h)), (hi_of_host h), pt, (nlen (auth_front hd sch ui h pt)), sch, false, q0, f0.
  rewrite (ak_st _ _ _ _ _ _ _ _ _ _ _ K).
  split; [reflexivity|]. split; [exact S1|]. split; [exact S2|]. split; [exact Hnf|].
  split; [exact (proj2 (auth_url_wf hp hpo hd HRT _ _ _ _ _ _ _ _ K))|].
  split; [exact (ak_q _ _ _ _ _ _ _ _ _ _ _ K)|]. split; [exact (ak_bq _ _ _ _ _ _ _ _ _ _ _ K)|].
  intros q f Hq Hf Bq Bf _. rewrite <- auth_url_qf. apply HC.
  destruct K as [Ksch Kst Kui Kh Kemp Kpt Kp Kq Kf Kb Kbq Kbf]. constructor; assumption.
Qed.

Lemma Canon_view u : Canon hp hpo hd u -> qf_view u.
Proof.
  intros [sch P q0 f0 K | sch segs last q0 f0 K | sch ui h pt p q0 f0 K | sch ui h pt p q0 f0 K Kp].
  - destruct (opaque_pre_sch sch P) as [S1 S2].
    exists (opaque_pre sch P), (nlen sch), (nlen (sch ++ [58])), (nlen (sch ++ [58])), (nlen (sch ++ [58])), HI_None, None,
      (nlen (sch ++ [58])), sch, true, q0, f0.
    split; [reflexivity|]. split; [exact S1|]. split; [exact S2|]. split; [rewrite (ok_ns _ _ _ _ K); reflexivity|].
    split; [exact (opaque_url_cbb sch P q0 f0 K)|]. rewrite (ok_ns _ _ _ _ K).
    split; [exact (ok_q _ _ _ _ K)|]. split; [exact (ok_bq _ _ _ _ K)|].
    intros q f Hq Hf Bq Bf Hl. rewrite <- opaque_url_qf. apply Canon_opaque.
    destruct K as [Ksch Kns KP KPq KPh Kq Kf Klast Kb1 Kbq Kbf]. constructor; try assumption.
    intros Eq Ef. exfalso. exact (Hl eq_refl Eq Ef).
  - destruct (noauth_pre_sch sch (path_text segs last)) as [S1 S2].
    exists (noauth_pre sch (path_text segs last)), (nlen sch), (nlen (sch ++ [58])), (nlen (sch ++ [58])), (nlen (sch ++ [58])),
      HI_None, None, (nlen (sch ++ [58]) + nlen (marker_of (path_text segs last))), sch, false, q0, f0.
    split; [reflexivity|]. split; [exact S1|]. split; [exact S2|]. split; [rewrite (nk_ns _ _ _ _ _ K); reflexivity|].
    split; [exact (proj1 (proj2 (noauth_url_wf sch segs last q0 f0 K)))|]. rewrite (nk_ns _ _ _ _ _ K).
    split; [exact (nk_q _ _ _ _ _ K)|]. split; [exact (nk_bq _ _ _ _ _ K)|].
    intros q f Hq Hf Bq Bf _. rewrite <- noauth_url_qf. apply Canon_noauth.
    destruct K as [Ksch Kns Ksegs Klast Kq Kf Kb1 Kbq Kbf]. constructor; assumption.
  - apply (auth_view STNotSpecial sch ui h pt p q0 f0 K eq_refl). exact (Canon_auth hp hpo hd sch ui h pt p).
  - apply (auth_view STSpecialNotFile sch ui h pt p q0 f0 K eq_refl).
    intros q f K'. exact (Canon_special hp hpo hd sch ui h pt p q f K' Kp).
Qed.

Lemma Canon_base_not_file b : Canon hp hpo hd b -> st_is_file (scheme_type_of (b_scheme b)) = false.
Proof.
  intros Cb. destruct (Canon_view b Cb) as (pre & se & ue & hs & he & hi & pt & ps & sch & cbb & q0 & f0 & -> & Hsch & Hse & Hnf & _).
  rewrite (b_scheme_qf pre se ue hs he hi pt ps q0 f0 sch Hsch Hse). exact Hnf.
Qed.

(* the references covered: no scheme; empty, or led by '#' or '?' *)
Definition tail_ref (input : list N) : bool :=
  let l := input_new_trim_c0 input in
  match parse_scheme CUrlParser l with
  | Some _ => false
  | None => match inp_next l with None => true | Some (c, _) => (c =? 35) || (c =? 63) end
  end.

(* a fragment-only reference, on every canonical base *)
Lemma fragment_only_Canon b l u : Canon hp hpo hd b -> usv_list l -> fragment_only b l = POk u -> Canon hp hpo hd u.
Proof.
  intros Cb Hl E.
  destruct (Canon_view b Cb) as (pre & se & ue & hs & he & hi & pt & ps & sch & cbb & q0 & f0 & -> & _ & _ & _ & _ & Hq0 & Bq0 & Repl).
  destruct (fragment_only_qf pre se ue hs he hi pt ps q0 f0 l u Hl E) as (F & -> & CF & BF).
  apply Repl; try assumption. intros _ _ E0. discriminate E0.
Qed.

(* the tail arms of the relative state on a canonical hierarchical base *)
Theorem rel_tail_Canon ovr b l u : Canon hp hpo hd b -> cannot_be_a_base b = Some false ->
  (forall se ser, nfirstn se ser = b_scheme b -> se <= nlen ser -> qf_spec ovr (scheme_type_of (b_scheme b)) se ser) ->
  usv_list l -> tail_first l = true ->
  parse_relative dbg hp hpo hd ovr CUrlParser (scheme_type_of (b_scheme b)) b l = POk u -> Canon hp hpo hd u.
Proof.
  intros Cb Hcb HQ Hl Ht. rewrite parse_relative_tail by exact Ht.
  destruct (Canon_view b Cb) as (pre & se & ue & hs & he & hi & pt & ps & sch & cbb & q0 & f0 & -> & Hsch & Hse & Hnf & Hcbb & Hq0 & Bq0 & Repl).
  rewrite Hcb in Hcbb. injection Hcbb as <-.
  rewrite (b_scheme_qf pre se ue hs he hi pt ps q0 f0 sch Hsch Hse) in *.
  apply (tail_arm_frame pre se ue hs he hi pt ps (Canon hp hpo hd) ovr (scheme_type_of sch) q0 f0 (HQ se pre Hsch Hse) Hq0 Bq0);
    [|exact Hl].
  intros q f Cq Cf Bq Bf. apply Repl; try assumption. intros E0. discriminate E0.
Qed.

Theorem join_tail_Canon ovr b input u : Canon hp hpo hd b -> usv_list input -> tail_ref input = true ->
  (ovr = None \/ st_is_special (scheme_type_of (b_scheme b)) = false) ->
  parse_url dbg hp hpo hd ovr (Some b) input = POk u -> Canon hp hpo hd u.
Proof.
  intros Cb Hu Ht Hov. pose proof (usv_trim is_c0_or_space input Hu : usv_list (input_new_trim_c0 input)) as Hl.
  unfold tail_ref in Ht. unfold parse_url. set (l := input_new_trim_c0 input) in *.
  destruct (parse_scheme CUrlParser l) as [[s r]|]; [discriminate|].
  destruct (inp_starts_with_char 35 l); [exact (fragment_only_Canon b l u Cb Hl)|].
  destruct (cannot_be_a_base b) as [[|]|] eqn:Hcb; try discriminate.
  rewrite (Canon_base_not_file b Cb).
  exact (rel_tail_Canon ovr b l u Cb Hcb (qf_spec_plain ovr (b_scheme b) Hov) Hl Ht).
Qed.

(* the join result is a fixpoint of re-parsing *)
Theorem join_tail_fixpoint ovr b input u : Canon hp hpo hd b -> usv_list input -> tail_ref input = true ->
  (ovr = None \/ st_is_special (scheme_type_of (b_scheme b)) = false) ->
  parse_url dbg hp hpo hd ovr (Some b) input = POk u ->
  Fixpoint_of_reparse dbg hp hpo hd u /\ wf_b u = true /\ ascii (ser u).
Proof.
  intros Cb Hu Ht Hov Hp. apply (Canon_fixpoint dbg hp hpo hd HRT).
  exact (join_tail_Canon ovr b input u Cb Hu Ht Hov Hp).
Qed.
End JoinTail.

(* non-vacuity *)
Example join_tail_examples :
  tail_ref (B " #x y") = true /\ tail_ref (B "?a b#c") = true /\ tail_ref (B "  ") = true
  /\ tail_ref (B "x") = false /\ tail_ref (B "a:b") = false
  /\ match parse_url true ex_hp ex_hp ex_hd None None (B "http://h/p?q#f") with
     | POk b => match parse_url true ex_hp ex_hp ex_hd None (Some b) (B "?a b#c") with
                | POk u => list_eqb (ser u) (B "http://h/p?a%20b#c") | _ => false end
                && match parse_url true ex_hp ex_hp ex_hd None (Some b) (B " #x y") with
                   | POk u => list_eqb (ser u) (B "http://h/p?q#x%20y") | _ => false end
                && match parse_url true ex_hp ex_hp ex_hd None (Some b) (B "") with
                   | POk u => list_eqb (ser u) (B "http://h/p?q") | _ => false end
     | _ => false
     end = true.
Proof. vm_compute. repeat split. Qed.
