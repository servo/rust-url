(* Proofs/C16_RT6.v - the origin round trip for ASCII host texts: plain ones (domains, IPv4 addresses) and bracketed
   ones ("[" ... "]", the IPv6 form - inside the brackets the host state of the parser does not stop at ':').  Both are
   texts on which the host scan stops exactly at the end, so both are instances of Proofs/C16_RTU.v. *)
From RU Require Import Base.Prelude Model.HostT Model.UrlRecord Model.Parser Model.Origin
  Proofs.C16_Origin Proofs.ListN Proofs.C16_RT Proofs.C16_RTU.

(* what may stand between the brackets: printable ASCII without / \ ? # @ [ ]   (':' and '.' allowed) *)
Definition v6c (c : N) : bool :=
  (32 <? c) && (c <? 128) && negb (memb c [47; 92; 63; 35; 64; 91; 93]).

Lemma v6c_facts c : v6c c = true ->
  is_tnl c = false /\ 32 < c /\ c < 128 /\ c <> 47 /\ c <> 92 /\ c <> 63 /\ c <> 35 /\ c <> 64 /\ c <> 91 /\ c <> 93.
Proof. unfold v6c, is_tnl. cbn [memb]. intros H. lia. Qed.

Lemma plainc_v6c c : plainc c = true -> v6c c = true.
Proof. unfold plainc, v6c. cbn [memb]. lia. Qed.

(* the host scan on a bracketed text: between '[' and ']' it keeps every v6c code point, ':' included *)
Lemma host_scan_inside body acc rest : forallb v6c body = true ->
  host_scan true true acc (body ++ 93 :: rest) = host_scan true false (93 :: rev body ++ acc) rest.
Proof.
  intros Hb. rewrite host_scan_keeps; [reflexivity|]. apply Forall_forall. intros c Hc.
  rewrite forallb_forall in Hb. apply Hb, v6c_facts in Hc. intuition discriminate.
Qed.

Lemma host_scan_stop acc sfx : (sfx = [] \/ exists r, sfx = 58 :: r) ->
  host_scan true false acc sfx = (rev acc, sfx).
Proof. intros [->|[r ->]]; reflexivity. Qed.

Lemma host_scan_bracket body sfx : forallb v6c body = true -> (sfx = [] \/ exists r, sfx = 58 :: r) ->
  host_scan true false [] ((91 :: body ++ [93]) ++ sfx) = (91 :: body ++ [93], sfx).
Proof.
  intros Hb Hs. cbn [app]. rewrite <- app_assoc. cbn [app].
  change (host_scan true false [] (91 :: body ++ 93 :: sfx)) with (host_scan true true [91] (body ++ 93 :: sfx)).
  rewrite (host_scan_inside body [91] sfx Hb). rewrite (host_scan_stop _ sfx Hs).
  cbn [rev]. rewrite rev_app_distr, rev_involutive. cbn [rev app]. reflexivity.
Qed.

(* ASCII host texts without '@' on which the host scan stops exactly at the end, when the input ends there or a
   ':' follows *)
Definition scannable (T : list N) : Prop :=
  Forall (fun x => 32 < x /\ x < 128 /\ x <> 64) T
  /\ (forall sfx, (sfx = [] \/ exists r, sfx = 58 :: r) -> host_scan true false [] (T ++ sfx) = (T, sfx)).

Lemma scannable_plain T : forallb plainc T = true -> scannable T.
Proof.
  intros H. assert (HT : Forall (fun x => plainc x = true) T) by (apply Forall_forall, forallb_forall, H).
  split.
  - eapply Forall_impl; [|exact HT]. intros x Hx. apply plainc_facts in Hx. lia.
  - intros sfx. apply (host_scan_through T []). eapply Forall_impl; [|exact HT]. intros x Hx. apply plainc_facts in Hx. tauto.
Qed.

Lemma scannable_bracket body : forallb v6c body = true -> scannable (91 :: body ++ [93]).
Proof.
  intros H. split.
  - constructor; [lia|]. apply Forall_app. split; [|repeat constructor; lia].
    apply Forall_forall. intros x Hx. rewrite forallb_forall in H. apply H in Hx. apply v6c_facts in Hx. lia.
  - intros sfx Hs. exact (host_scan_bracket body sfx H Hs).
Qed.

Lemma scannable_ascii T : scannable T -> scannable_u T /\ Forall (fun x => x < 128) T.
Proof.
  intros [Hc Hs]. split; [split; [|exact Hs]|]; (eapply Forall_impl; [|exact Hc]); cbv beta; intros; lia.
Qed.

Section RT6.
Variable dbg : bool.
Variable hp ho : list N -> result host.
Variable hd : host -> list N.

Lemma parse_tuple_text_gen s c t tout h p :
  In s five_schemes -> scannable (c :: t) -> c <> 47 -> c <> 92 ->
  hp (c :: t) = Ok h -> hd h = tout -> host_fmt hd h = tout -> tout <> [] -> ends_with_byte 47 tout = false ->
  p <= 65535 ->
  nlen s + 3 + nlen tout + nlen (port_suffix s p) + 1 <= U32_MAX_P ->
  exists w,
    parse_url dbg hp ho hd None None (s ++ 58 :: 47 :: 47 :: (c :: t) ++ port_suffix s p) = POk w
    /\ scheme w = Some s /\ host_of w = Some (Some h) /\ port_or_known_default w = Some (Some p).
Proof. intros H5 Hsc. apply parse_tuple_text_u; [exact H5|exact (proj1 (scannable_ascii _ Hsc))]. Qed.

(* parsing the serialization  scheme://text[:port]  gives a URL with origin (scheme, h, port), whenever the
   host scan stops at the end of the text, Host::parse reads it as h, and Display writes h as a non-empty
   text that does not end in '/' *)
Lemma rt_text_gen s c t h p :
  In s five_schemes -> p <= 65535 ->
  scannable (c :: t) -> c <> 47 -> c <> 92 -> hp (c :: t) = Ok h ->
  hd h = host_fmt hd h -> host_fmt hd h <> [] -> ends_with_byte 47 (host_fmt hd h) = false ->
  nlen (tuple_serialization s (host_fmt hd h) p) < U32_MAX_P ->
  exists w, url_parse dbg hp ho hd (tuple_serialization s (c :: t) p) = POk w
            /\ forall f k, url_origin_fuel dbg hp ho hd f k w = OOk (Tuple s h p) k.
Proof.
  intros H5 Hp Hsc Hc47 Hc92 Hhp Hhd Hne Hlast HB. destruct (scannable_ascii _ Hsc) as [Hu Ha].
  rewrite <- (utf8_encode_asc (c :: t) Ha). apply rt_text_u; try assumption. exact (asc_usv _ Ha).
Qed.

End RT6.

(* for a host that is not a domain the Unicode serialization is the ASCII one *)
Lemma unicode_is_ascii hd tu s h p : (forall d, h <> HDomain d) ->
  unicode_serialization hd tu (Tuple s h p) = ascii_serialization hd (Tuple s h p).
Proof. intros H. destruct h as [d|a|pc]; [exfalso; exact (H d eq_refl)|reflexivity|reflexivity]. Qed.

Definition bracket_text (t : list N) : Prop := exists body, t = 91 :: body ++ [93] /\ forallb v6c body = true.

Lemma ends_with_93 body : ends_with_byte 47 (91 :: body ++ [93]) = false.
Proof.
  unfold ends_with_byte. change (91 :: body ++ [93]) with ((91 :: body) ++ [93]). rewrite rev_app_distr. reflexivity.
Qed.

Definition rt_plain_stmt : Prop :=
  forall dbg hp ho hd tu s h p,
    In s five_schemes -> p <= 65535 ->
    (* the ASCII form of the host is plain, Display and Host::parse are inverse on it (C09) *)
    plain_text (host_fmt hd h) -> hd h = host_fmt hd h -> hp (host_fmt hd h) = Ok h ->
    nlen (ascii_serialization hd (Tuple s h p)) < U32_MAX_P ->
    (exists w, url_parse dbg hp ho hd (ascii_serialization hd (Tuple s h p)) = POk w
               /\ forall f k, url_origin_fuel dbg hp ho hd f k w = OOk (Tuple s h p) k)
    /\ (* the Unicode form: when it is plain ASCII too and parses back to the same host (C12) *)
       (forall d, h = HDomain d -> plain_text (tu d) -> hp (tu d) = Ok h ->
        exists w, url_parse dbg hp ho hd (unicode_serialization hd tu (Tuple s h p)) = POk w
                  /\ forall f k, url_origin_fuel dbg hp ho hd f k w = OOk (Tuple s h p) k).

(* a plain or bracketed text is not empty and does not end in '/' *)
Lemma host_text_end t : plain_text t \/ bracket_text t -> t <> [] /\ ends_with_byte 47 t = false.
Proof.
  intros [[Hne Hpl]|(body & -> & _)]; [|split; [discriminate|apply ends_with_93]].
  split; [exact Hne|]. destruct t as [|y r]; [congruence|].
  apply (ends_with_not 47 [] (y :: r)); [discriminate|now apply plain_no_slash].
Qed.

(* the round trip through a plain text T that Host::parse reads as h *)
Lemma rt_plain_text dbg hp ho hd s T h p :
  In s five_schemes -> p <= 65535 -> plain_text T -> hp T = Ok h ->
  hd h = host_fmt hd h -> plain_text (host_fmt hd h) \/ bracket_text (host_fmt hd h) ->
  nlen (tuple_serialization s (host_fmt hd h) p) < U32_MAX_P ->
  exists w, url_parse dbg hp ho hd (tuple_serialization s T p) = POk w
            /\ forall f k, url_origin_fuel dbg hp ho hd f k w = OOk (Tuple s h p) k.
Proof.
  intros H5 Hp [Hne Hpl] Hhp Hhd Htxt HB. destruct (host_text_end _ Htxt) as [Hne' Hend].
  destruct T as [|c t]; [congruence|].
  pose proof (plainc_facts c ltac:(cbn [forallb] in Hpl; apply andb_true_iff in Hpl; tauto)) as Hc.
  apply rt_text_gen; try assumption; try tauto. exact (scannable_plain _ Hpl).
Qed.

Lemma rt_plain : rt_plain_stmt.
Proof.
  intros dbg hp ho hd tu s h p H5 Hp Hpl Hhd Hhp HB. split.
  - exact (rt_plain_text dbg hp ho hd s _ h p H5 Hp Hpl Hhp Hhd (or_introl Hpl) HB).
  - intros d -> Hpl' Hhp'.
    exact (rt_plain_text dbg hp ho hd s (tu d) (HDomain d) p H5 Hp Hpl' Hhp' Hhd (or_introl Hpl) HB).
Qed.

Definition rt_bracket_stmt : Prop :=
  forall dbg hp ho hd tu s h p,
    In s five_schemes -> p <= 65535 ->
    (* the text of the host is bracketed (IPv6 hosts), Display and Host::parse are inverse on it (C09) *)
    bracket_text (host_fmt hd h) -> hd h = host_fmt hd h -> hp (host_fmt hd h) = Ok h ->
    nlen (ascii_serialization hd (Tuple s h p)) < U32_MAX_P ->
    (exists w, url_parse dbg hp ho hd (ascii_serialization hd (Tuple s h p)) = POk w
               /\ forall f k, url_origin_fuel dbg hp ho hd f k w = OOk (Tuple s h p) k)
    /\ ((forall d, h <> HDomain d) ->
        exists w, url_parse dbg hp ho hd (unicode_serialization hd tu (Tuple s h p)) = POk w
                  /\ forall f k, url_origin_fuel dbg hp ho hd f k w = OOk (Tuple s h p) k).

Lemma rt_bracket : rt_bracket_stmt.
Proof.
  intros dbg hp ho hd tu s h p H5 Hp (body & Et & Hb) Hhd Hhp HB.
  assert (Hasc : exists w, url_parse dbg hp ho hd (ascii_serialization hd (Tuple s h p)) = POk w
               /\ forall f k, url_origin_fuel dbg hp ho hd f k w = OOk (Tuple s h p) k).
  { cbn [ascii_serialization] in *.
    pose proof (rt_text_gen dbg hp ho hd s 91 (body ++ [93]) h p H5 Hp (scannable_bracket body Hb) ltac:(lia) ltac:(lia)) as R.
    rewrite <- Et in R. apply R; try assumption.
    - rewrite Et. discriminate.
    - rewrite Et. apply ends_with_93. }
  split; [exact Hasc|]. intros Hnd. rewrite (unicode_is_ascii hd tu s h p Hnd). exact Hasc.
Qed.

(* The round trip for ARBITRARY host functions is false.
   rt_full_stmt is the round-trip statement of property C16 as the property text has it (Properties/C16.v states it
   as C16_rt_statement and refutes it as C16_rt_refuted, by rt_full_refuted below).  It quantifies over all
   Host::parse / Display functions and only asks that they are inverse on the host of the origin.  That is not
   enough: if Host::parse may return a domain whose text contains '/',
   the serialization is cut at that '/' when it is parsed again.  Witness: Host::parse maps "x" and "a/b" to
   Domain("a/b") and "a" to Domain("z"); https://x/ has origin (https, a/b, 443), serialized https://a/b, which
   parses to a URL with origin (https, z, 443).  (The real Host::parse never returns such a domain - C09_domain -
   so this is a fact about the statement, not about the crate; plain_text / bracket_text are the premises that
   exclude it.) *)
Definition rt_full_stmt : Prop :=
  forall dbg hp ho hd tu input u c o c',
    url_parse dbg hp ho hd input = POk u ->
    url_origin dbg hp ho hd c u = OOk o c' -> is_tuple o = true ->
    (forall s h p, o = Tuple s h p ->
       hp (str_chars (host_fmt hd h)) = Ok h
       /\ (forall d, h = HDomain d -> hp (str_chars (tu d)) = Ok h)) ->
    (exists w, url_parse dbg hp ho hd (ascii_serialization hd o) = POk w
               /\ url_origin dbg hp ho hd c' w = OOk o c')
    /\ (exists w, url_parse dbg hp ho hd (unicode_serialization hd tu o) = POk w
                  /\ url_origin dbg hp ho hd c' w = OOk o c').

Definition x_a_b : list N := [97; 47; 98].
Definition x_hp (t : list N) : result host :=
  if list_eqb t [120] then Ok (HDomain x_a_b)
  else if list_eqb t x_a_b then Ok (HDomain x_a_b)
  else if list_eqb t [97] then Ok (HDomain [122]) else Err EmptyHost.
Definition x_hd (h : host) : list N := match h with HDomain d => d | _ => [] end.
Definition x_input : list N := [104; 116; 116; 112; 115; 58; 47; 47; 120; 47].
Definition x_url : url := mkUrl [104; 116; 116; 112; 115; 58; 47; 47; 97; 47; 98; 47] 5 8 8 11 HI_Domain None 11 None None.

Lemma rt_full_refuted : ~ rt_full_stmt.
Proof.
  intros H.
  specialize (H true x_hp x_hp x_hd (fun d => d) x_input x_url 0 (Tuple s_https (HDomain x_a_b) 443) 0).
  destruct H as [[w [Hw Ho]] _].
  - vm_compute. reflexivity.
  - vm_compute. reflexivity.
  - reflexivity.
  - intros s h p E. inversion E; subst. split; [vm_compute; reflexivity|].
    intros d Ed. inversion Ed; subst. vm_compute. reflexivity.
  - vm_compute in Hw. inversion Hw; subst w. vm_compute in Ho. discriminate Ho.
Qed.
