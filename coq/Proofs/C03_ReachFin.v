(* Proofs/C03_ReachFin.v - corollaries:
     (0) the histories without joins, reach03n and reach03k, lie inside reach03a and reach03j and inherit PN and inv03;
     (1) the byte alphabet of reach03a records with the host MODEL (Model/Host.v) under IdnaOK alone - IpOKv (address VALUES
         are displayed inside 0x21..0x7E) is the hypothesis the model meets, C05_Setters.IpOK (every host that is not a
         domain, also ill-typed ones) is stronger - and of the records of C02's Reachable3;
     (2) the String / FromStr / TryFrom / serde round trips and "equal serializations = equal records" for the
         records of C02's ReachC4 (Proofs/C02_Reach5.v), which are fixpoints of re-parsing (reach_partial4). *)
From RU Require Import Base.Prelude Base.Utf8 Model.HostT Model.Host Model.UrlRecord Model.Parser Proofs.C02_Hist
  Proofs.C02_HistInst Proofs.C02_SetHostCanon Proofs.C02_Reach3 Proofs.C02_Reach4 Proofs.C02_Reach5 Proofs.C09_Host
  Proofs.C05_Enc Proofs.C05_Parser Proofs.C05_CompSteps3 Proofs.C05_Alphabet Proofs.C02_AuthParts Proofs.C06_Main
  Proofs.C03_ReachParts Proofs.C03_ReachHost Proofs.C03_Reachability Proofs.C03_ReachAscii Proofs.C03_Views Proofs.C03_PortInv
  Proofs.C03_PortParse Proofs.C03_ReachKnown Proofs.C03_ReachJoin Proofs.C03_AuthEnd Proofs.C03_ReachFull Proofs.C03_ReachModel.
Open Scope N_scope.
Open Scope list_scope.

(* (0) the histories without joins inherit from reach03a and reach03j *)
Section Sub.
Variable dbg : bool.
Variable hp hpo : list N -> result host.
Variable hd : host -> list N.

Theorem reach03n_pn : HostRT hp hpo hd -> host_above hp hpo hd -> C03_ReachAll.IpDisp hd -> forall u, reach03n dbg hp hpo hd u -> PN u.
Proof.
  intros HRT _ HIP u R.
  exact (reach03a_pn_all dbg hp hpo hd (HostRT_HostWf hp hpo hd HRT) HIP u (reach03n_sub dbg hp hpo hd u R)).
Qed.

(* auth_end_ok of a receiver follows from inv03: a call outside known03k is outside known03 *)
Lemma reach03k_n : HostWf hp hpo hd -> NoEmpty hp -> IpWf hd -> forall u, reach03k dbg hp hpo hd u -> reach03n dbg hp hpo hd u.
Proof.
  intros HW HNE HIPW u R. induction R as [input u Hu Hc Hp | p u Hb H | p u Hb H | u o u' R IH Ha G H].
  - exact (RN_parse dbg hp hpo hd input u Hu Hc Hp).
  - exact (RN_file dbg hp hpo hd p u Hb H).
  - exact (RN_dir dbg hp hpo hd p u Hb H).
  - apply (RN_step dbg hp hpo hd u o u' IH Ha); [|exact H].
    destruct (reach03j_inv dbg hp hpo hd HW HNE HIPW u (reach03k_j dbg hp hpo hd u R)) as (K & _ & _ & E).
    exact (known03k_known03 u o u' (he_auth_end u K E) G).
Qed.

Theorem reach03k_inv : HostRT hp hpo hd -> host_above hp hpo hd -> NoEmpty hp -> IpWf hd ->
  forall u, reach03k dbg hp hpo hd u -> wfh u /\ HE u /\ PN u /\ reach03n dbg hp hpo hd u.
Proof.
  intros HRT _ HNE HIPW u R. pose proof (HostRT_HostWf hp hpo hd HRT) as HW.
  destruct (reach03j_inv dbg hp hpo hd HW HNE HIPW u (reach03k_j dbg hp hpo hd u R)) as (K & _ & P & E).
  split; [exact K|]. split; [exact E|]. split; [exact P | exact (reach03k_n HW HNE HIPW u R)].
Qed.
End Sub.

(* (1) the alphabet with the host model, and for C02's quantifier *)
Lemma IpOK_IpOKv hd : C05_Setters.IpOK hd -> IpOKv hd.
Proof. intros H h Hh. exact (H h (ip_arg_is_ip h Hh)). Qed.

Theorem reach03a_ascii_model dbg idna : IdnaOK idna ->
  forall u, reach03a dbg (host_parse idna) host_parse_opaque host_display u -> Forall ok_or_space (ser u) /\ ascii (ser u).
Proof.
  intros OK u R. destruct (model_full_hyps idna OK) as (_ & _ & _ & HOK & HIP).
  split; [exact (reach03a_alphabet_v dbg _ _ _ HOK HIP u R) | exact (reach03a_ascii_v dbg _ _ _ HOK HIP u R)].
Qed.

Theorem reach3_ascii dbg hp hpo hd : HostWf hp hpo hd -> host_nonempty hp hpo -> IpWf hd -> HostOK hp hpo hd -> IpOKv hd ->
  forall u, Reachable3 dbg hp hpo hd u -> Forall ok_or_space (ser u) /\ ascii (ser u).
Proof.
  intros HW HNE HIPW HOK HIP u R. pose proof (proj2 (reach3_inv_all dbg hp hpo hd HW HNE HIPW HOK HIP u R)) as A.
  split; [exact A | exact (oks_ascii _ A)].
Qed.

(* (2) round trips for the records of ReachC4 *)
Theorem round_trips_reach dbg hp hpo hd : HostOK2 hp hpo hd -> host_nonempty hp hpo ->
  forall u, ReachC4 dbg hp hpo hd u ->
  url_from_str dbg hp hpo hd (utf8_lossy (url_display u)) = POk u
  /\ serde_deserialize dbg hp hpo hd (serde_serialize u) = POk u
  /\ deserialize_internal dbg hp hpo hd (serialize_internal u) = Some u.
Proof.
  intros HOK HNE u R. destruct (reach_partial4 dbg hp hpo hd HOK HNE u R) as (F & W & _).
  destruct (string_round_trips dbg hp hpo hd u F) as [A B0].
  split; [exact A|]. split; [exact B0 | exact (internal_round_trip dbg hp hpo hd u W F)].
Qed.

Theorem eq_records_reach dbg hp hpo hd : HostOK2 hp hpo hd -> host_nonempty hp hpo ->
  forall u v, ReachC4 dbg hp hpo hd u -> ReachC4 dbg hp hpo hd v -> url_eq u v = true -> u = v.
Proof.
  intros HOK HNE u v Ru Rv.
  exact (eq_records dbg hp hpo hd u v (proj1 (reach_partial4 dbg hp hpo hd HOK HNE u Ru))
           (proj1 (reach_partial4 dbg hp hpo hd HOK HNE v Rv))).
Qed.

Theorem round_trips_reach_model dbg idna : IdnaOK idna ->
  forall u, ReachC4 dbg (host_parse idna) host_parse_opaque host_display u ->
  url_from_str dbg (host_parse idna) host_parse_opaque host_display (utf8_lossy (url_display u)) = POk u
  /\ serde_deserialize dbg (host_parse idna) host_parse_opaque host_display (serde_serialize u) = POk u
  /\ deserialize_internal dbg (host_parse idna) host_parse_opaque host_display (serialize_internal u) = Some u.
Proof.
  intros OK u. exact (round_trips_reach dbg _ _ _ (HostOK2_model idna OK) (host_nonempty_model idna) u).
Qed.
