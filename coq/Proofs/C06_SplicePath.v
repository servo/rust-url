(* Proofs/C06_SplicePath.v - WHOLE-URL parser agreement, part 4: set_path on the canonical records with an
   authority (both classes: non-special scheme, special non-file scheme).  The setter maps auth_url .. p ..
   to auth_url .. p' .. where p' is the canonical path the parser's path-start state writes for the argument,
   and Parser::parse_url on the old serialization with the RAW argument in the path position returns exactly
   this record.  Argument: free of '?' and '#' (the parser ends the path there, the setter encodes them) and
   empty or '/'-led - '\'-led as well for a special scheme - (otherwise the spliced text continues the host / port:
   not a splice of the path). *)
From RU Require Import Base.Prelude Base.Utf8 Base.Utf8Facts Model.AsciiSet Gen.Tables
  Model.PercentEncoding Model.HostT Model.UrlRecord Model.Parser Model.Setters Model.WF
  Proofs.ListN Proofs.C03_WF Proofs.C06_List Proofs.C06_WFI Proofs.C06_Suffix Proofs.C06_PathParser Proofs.C06_Path
  Proofs.C14_Set Proofs.C14_Enc Proofs.C14_Views Proofs.C02_Enc Proofs.C02_Parts
  Proofs.C02_Opaque Proofs.C02_Path Proofs.C02_PathL1 Proofs.C02_Reach Proofs.C16_RT Proofs.C02_AuthParts
  Proofs.C02_Auth Proofs.C02_AuthWf Proofs.C02_PathSp Proofs.C02_AuthSp Proofs.C02_AuthMain Proofs.C02_SetQF
  Proofs.C02_Canon Proofs.C02_SetPort
  Proofs.C06_Agree Proofs.C06_AgreeUrl Proofs.C06_Splice Proofs.C06_SpliceAuth Proofs.C06_SpliceCred.
From RU Require Import Proofs.Decimal.
Open Scope N_scope.
Open Scope list_scope.

(* the old serialization with x in the path position *)
Definition splice_path (u : url) (x : list N) : list N :=
  nfirstn (path_start u) (ser u) ++ x ++ nskipn (path_end u) (ser u).

(* the argument is empty or starts with '/' - or with '\' when the scheme is special (the parser reads it as '/') *)
Definition path_arg_ok (sp : bool) (x : list N) : Prop :=
  match x with [] => True | c :: _ => ((c =? 47) || ((c =? 92) && sp)) = true end.

Lemma path_arg_pe sp x : path_arg_ok sp x -> pe_ok x.
Proof. destruct x as [|c r]; [tauto|]. cbn [path_arg_ok pe_ok]. unfold is_tnl, is_path_end. intros H. destruct sp; split; lia. Qed.

Lemma path_arg_tnl sp x : path_arg_ok sp x -> match x with c :: _ => is_tnl c = false | [] => True end.
Proof. destruct x as [|c r]; [tauto|]. cbn [path_arg_ok]. unfold is_tnl. intros H. destruct sp; lia. Qed.

(* what may follow the authority: nothing, '/', '?', '#' - or '\' for a special scheme *)
Definition tail_sp (sp : bool) (X : list N) : Prop :=
  match X with [] => True | c :: _ => ((c =? 47) || (c =? 63) || (c =? 35) || ((c =? 92) && sp)) = true end.

Lemma tail_ok_sp sp X : tail_ok X -> tail_sp sp X.
Proof. destruct X as [|c r]; [tauto|]. cbn [tail_ok tail_sp]. intros H. destruct sp; lia. Qed.

Lemma tail_sp_stop sp X : tail_sp sp X -> stop_ok sp X.
Proof. destruct X as [|c r]; [tauto|]. cbn [tail_sp stop_ok]. unfold is_tnl, auth_delim. intros H. destruct sp; split; lia. Qed.

Lemma tail_sp_pe sp X : tail_sp sp X -> pe_ok X.
Proof. destruct X as [|c r]; [tauto|]. cbn [tail_sp pe_ok]. unfold is_tnl, is_path_end. intros H. destruct sp; split; lia. Qed.

(* the authority states of C02 on canonical text, with a '\' allowed behind the authority of a special scheme *)
Section TailSp.
Variable hp hpo : list N -> result host.
Variable hd : host -> list N.
Hypothesis HRT : HostRT hp hpo hd.
Variable st : scheme_type.
Hypothesis Hnf : st_is_file st = false.
Notation sp := (st_is_special st).
Notation host_ok := (host_ok hp hpo hd st).

Lemma port_text_scan_sp pt X : tail_sp sp X -> (match pt with Some p => p <= 65535 | None => True end) ->
  forall count last, scan_last_at sp (port_text pt ++ X) count last = last.
Proof.
  intros HX Hp count last. destruct pt as [p|]; cbn [port_text app].
  - change (58 :: decimal p ++ X) with ((58 :: decimal p) ++ X). rewrite scan_plain.
    + apply scan_stop. apply tail_sp_stop. exact HX.
    + cbn [forallb]. replace (plainc sp 58) with true by (destruct sp; reflexivity). cbn [andb].
      apply (forallb_impl is_digit); [apply digit_plain|]. exact (proj2 (port_rt p Hp)).
  - apply scan_stop. apply tail_sp_stop. exact HX.
Qed.

Lemma auth_scan_sp h pt X : host_ok h -> (h = HDomain [] -> pt = None) ->
  (match pt with Some p => p <= 65535 | None => True end) -> tail_sp sp X ->
  forall count last, scan_last_at sp (hd h ++ port_text pt ++ X) count last = last.
Proof.
  intros Hh Hemp Hp HX. destruct Hh as [[-> _]|(Hne & Ht & _)].
  - rewrite (hd_empty hp hpo hd HRT). cbn [app]. apply port_text_scan_sp; [exact HX | exact Hp].
  - apply host_text_scan; [exact Ht|]. apply port_text_scan_sp; [exact HX | exact Hp].
Qed.

Lemma host_scan_tail_sp X : tail_sp sp X -> host_scan sp false [] X = ([], X).
Proof.
  destruct X as [|c r]; [reflexivity|]. cbn [tail_sp]. intros H. cbn [host_scan].
  assert (is_tnl c = false) as Ht by (unfold is_tnl; destruct sp; lia). rewrite Ht.
  assert (((c =? 58) && negb false) || ((c =? 92) && sp) || (c =? 47) || (c =? 63) || (c =? 35) = true) as Hs by (destruct sp; lia).
  rewrite Hs. reflexivity.
Qed.

Lemma port_text_head_sp pt X : tail_sp sp X ->
  match port_text pt ++ X with [] => True | c :: _ => (c =? 58) || (c =? 47) || (c =? 63) || (c =? 35) || ((c =? 92) && sp) = true end.
Proof.
  intros HX. destruct pt as [p|]; [reflexivity|]. cbn [port_text app]. destruct X as [|c r]; [exact I|].
  cbn [tail_sp] in HX. destruct sp; lia.
Qed.

Lemma parse_host_canon_sp h pt X : host_ok h -> (h = HDomain [] -> pt = None) -> tail_sp sp X ->
  parse_host hp hpo st (hd h ++ port_text pt ++ X) = POk (h, port_text pt ++ X).
Proof.
  intros Hok Hemp HX. rewrite (parse_host_unfold hp hpo st Hnf). destruct Hok as [[-> Hns]|(Hne & Ht & Hp & _)].
  - rewrite (Hemp eq_refl). rewrite (hd_empty hp hpo hd HRT). cbn [port_text app]. rewrite host_scan_tail_sp by exact HX.
    rewrite andb_true_r. assert (scheme_type_eqb st STSpecialNotFile = false) as E by (destruct st; [discriminate| discriminate |reflexivity]).
    rewrite E. unfold hpx. rewrite Hns. destruct HRT as (_ & _ & _ & H6). rewrite H6. reflexivity.
  - destruct Ht as (Ha & Hnn & Hs & Hat). rewrite (Hs sp (port_text pt ++ X) (port_text_head_sp pt X HX)).
    destruct (hd h) as [|c0 t0] eqn:Ehd; [contradiction|]. rewrite andb_false_r.
    rewrite Hp. reflexivity.
Qed.

Lemma hap_tail_canon_sp se ser h pt X : host_ok h -> (h = HDomain [] -> pt = None) ->
  port_ok (default_port (nfirstn se (ser ++ hd h))) pt -> tail_sp sp X ->
  nlen ser + nlen (hd h) <= U32_MAX_P ->
  hap_tail hd st se ser h (port_text pt ++ X)
  = POk (ser ++ hd h ++ port_text pt, nlen ser + nlen (hd h), hi_of_host h, pt, X).
Proof.
  intros Hok Hemp Hpt HX Hb. unfold hap_tail. rewrite nlen_app. rewrite to_u32_ok by exact Hb. cbn [pbind].
  assert (inp_split_prefix_char 58 X = None /\ inp_starts_with_char 58 X = false) as [E1 E2].
  { unfold inp_split_prefix_char, inp_starts_with_char. destruct X as [|c r]; [split; reflexivity|].
    cbn [tail_sp] in HX. rewrite inp_next_cons by (unfold is_tnl; destruct sp; lia). replace (c =? 58) with false by (destruct sp; lia). split; reflexivity. }
  set (chk := match h with HDomain [] => _ | _ => POk tt end).
  assert (chk = POk tt) as ->.
  { unfold chk. destruct Hok as [[-> Hns]|(Hne & _)].
    - rewrite (Hemp eq_refl). cbn [port_text app]. rewrite E2, Hns. reflexivity.
    - destruct h as [[|d0 d]|a|pcs]; try reflexivity. contradiction. }
  cbn [pbind]. destruct pt as [p|]; cbn [port_text C02_AuthParts.port_ok] in *.
  - destruct Hpt as [Hp Hd]. cbn [app]. unfold inp_split_prefix_char at 1. rewrite inp_next_cons by reflexivity.
    replace (58 =? 58) with true by reflexivity.
    rewrite parse_port_canon by (try assumption; apply tail_sp_pe with (sp := sp); exact HX). cbn [pbind].
    rewrite <- app_assoc. reflexivity.
  - cbn [app]. rewrite E1. rewrite app_nil_r. reflexivity.
Qed.

Lemma phap_canon_sp sch ui h pt X : host_ok h -> (h = HDomain [] -> pt = None) ->
  port_ok (default_port sch) pt -> tail_sp sp X -> nlen (auth_front hd sch ui h pt) <= U32_MAX_P ->
  parse_host_and_port hp hpo hd CUrlParser st (nlen sch) (((sch ++ [58]) ++ [47; 47]) ++ ui_text ui) (hd h ++ port_text pt ++ X)
  = POk (auth_front hd sch ui h pt, nlen (((sch ++ [58]) ++ [47; 47]) ++ ui_text ui) + nlen (hd h), hi_of_host h, pt, X).
Proof.
  intros Kh Kemp Kpt HX Kb. pose proof (front_len hd sch ui h pt) as FL.
  rewrite (phap_unfold hp hpo hd st).
  rewrite (parse_host_canon_sp h pt _ Kh Kemp HX). cbn [pbind].
  rewrite (hap_tail_canon_sp (nlen sch) _ h pt _ Kh Kemp); [| | exact HX | clear - Kb FL; llia].
  2:{ replace (nfirstn (nlen sch) ((((sch ++ [58]) ++ [47; 47]) ++ ui_text ui) ++ hd h)) with sch; [exact Kpt|].
      rewrite <- !app_assoc. symmetry. apply nfirstn_app_len. }
  rewrite (front_eq hd). reflexivity.
Qed.
End TailSp.

Lemma qh_ok_tail X : qh_ok X -> C06_Agree.qh_tail X.
Proof. destruct X as [|c r]; [tauto|]. cbn [qh_ok C06_Agree.qh_tail]. unfold is_qh. tauto. Qed.

(* the frame: with_path on the shape of C02_SetQF *)
Lemma path_end_qf pre se ue hs he hi pt ps q f : path_end (qf_url pre se ue hs he hi pt ps q f) = nlen pre.
Proof.
  unfold path_end, qf_url. cbn [query_start fragment_start ser]. unfold qf_text.
  destruct q as [t|]; destruct f as [y|]; cbn [qf_qs qf_fs qf_qtext qf_ftext]; rewrite ?app_nil_r, ?nlen_nil; try reflexivity; lia.
Qed.

Lemma with_path_qf front T P se ue hs he hi pt q f :
  with_path (qf_url (front ++ T) se ue hs he hi pt (nlen front) q f) P
  = qf_url (front ++ P) se ue hs he hi pt (nlen front) q f.
Proof.
  unfold with_path. rewrite path_end_qf. unfold qf_url. cbn [ser path_start scheme_end username_end host_start host_end hosti port
    query_start fragment_start].
  rewrite <- (app_assoc front T). rewrite nfirstn_app_len. rewrite (app_assoc front T). rewrite nskipn_app_len.
  f_equal.
  - rewrite <- app_assoc. reflexivity.
  - destruct q as [t|]; cbn [qf_qs option_map]; [|reflexivity]. unfold shift. rewrite N.sub_diag, nlen_app. reflexivity.
  - destruct f as [y|]; cbn [qf_fs option_map]; [|reflexivity]. unfold shift. rewrite !nlen_app. f_equal. lia.
Qed.

Lemma splice_path_qf front T x se ue hs he hi pt q f :
  splice_path (qf_url (front ++ T) se ue hs he hi pt (nlen front) q f) x = front ++ x ++ qf_text q f.
Proof.
  unfold splice_path. rewrite path_end_qf. unfold qf_url. cbn [ser path_start].
  rewrite <- (app_assoc front T). rewrite nfirstn_app_len. rewrite (app_assoc front T). rewrite nskipn_app_len. reflexivity.
Qed.

(* the end of a text made of a canonical front, a raw middle part and a canonical back *)
Lemma first_ok_rev_parts (A x Q : list N) : forallb above_space A = true -> forallb above_space Q = true ->
  (Q = [] -> first_ok (rev x)) -> A ++ x ++ Q <> [] -> first_ok (rev (A ++ x ++ Q)).
Proof.
  intros HA HQ Hx Hne. destruct Q as [|qc qr].
  - rewrite app_nil_r in *. destruct x as [|xc xr].
    + rewrite app_nil_r in *. apply (first_ok_rev_app []); [exact Hne | apply forallb_above; exact HA].
    + apply first_ok_rev_app2; [discriminate | apply Hx; reflexivity].
  - rewrite app_assoc. apply first_ok_rev_app; [discriminate | apply forallb_above; exact HQ].
Qed.

Section PathAuth.
Variable dbg : bool.
Variable hp hpo : list N -> result host.
Variable hd : host -> list N.
Hypothesis HRT : HostRT hp hpo hd.

Notation auth_ok := (auth_ok hp hpo hd).
Notation auth_url := (auth_url hd).
Notation auth_ser := (auth_ser hd).
Notation auth_front := (auth_front hd).
Notation auth_pre := (auth_pre hd).
Notation host_ok := (host_ok hp hpo hd).
Notation auth_cls := C06_SpliceAuth.auth_cls.

(* auth_end_ok - the premise of C06_frame_path - holds of both canonical classes with an authority *)
Lemma auth_end_ok_auth st sch ui h pt p q f : auth_ok st sch ui h pt p q f -> st_is_file st = false ->
  auth_end_ok (auth_url sch ui h pt p q f).
Proof.
  intros K Hnf. unfold auth_end_ok. cbn [scheme_end ser path_start C02_Auth.auth_url].
  unfold C02_Auth.auth_ser, C02_Auth.auth_pre. rewrite <- !app_assoc. rewrite (front_sch hd). rewrite nfirstn_app_len.
  rewrite (ak_st _ _ _ _ _ _ _ _ _ _ _ K). intros Hsp _.
  destruct st; try discriminate. apply (front_not_slash hp hpo hd). exact (ak_h _ _ _ _ _ _ _ _ _ _ _ K).
Qed.

Lemma auth_byte_slash sch ui h pt p q f : byte_eqb (ser (auth_url sch ui h pt p q f)) (scheme_end (auth_url sch ui h pt p q f) + 1) 47 = true.
Proof.
  cbn [ser scheme_end C02_Auth.auth_url]. rewrite (auth_ser_shape hd). unfold byte_eqb. rewrite nnth_app_ge by lia.
  replace (nlen sch + 1 - nlen sch) with 1 by lia. reflexivity.
Qed.

Lemma auth_stype sch ui h pt p q f :
  nfirstn (scheme_end (auth_url sch ui h pt p q f)) (ser (auth_url sch ui h pt p q f)) = sch.
Proof. cbn [ser scheme_end C02_Auth.auth_url]. unfold C02_Auth.auth_ser, C02_Auth.auth_pre. rewrite <- !app_assoc. apply (front_sch hd). Qed.

Lemma auth_front_cut sch ui h pt p q f :
  nfirstn (path_start (auth_url sch ui h pt p q f)) (ser (auth_url sch ui h pt p q f)) = auth_front sch ui h pt.
Proof. cbn [ser path_start C02_Auth.auth_url]. unfold C02_Auth.auth_ser, C02_Auth.auth_pre. rewrite <- !app_assoc. apply nfirstn_app_len. Qed.

(* the path state of the parser on the argument: canonical path of the class *)
Lemma pps_cls_out st ser x hh s3 hh' rem3 : (st = STNotSpecial \/ (st = STSpecialNotFile /\ ends_with_byte 47 ser = false)) ->
  usv_list x -> pe_ok x ->
  parse_path_start dbg CUrlParser st hh ser x = POk (s3, hh', rem3) ->
  exists p', auth_cls st p' /\ s3 = ser ++ pth_text p'.
Proof.
  intros [->|[-> He]] Hx Hpe E.
  - destruct (pps_out dbg _ _ _ _ _ _ Hx Hpe E) as (p' & Hp' & -> & _). exists p'. split; [left; split; [reflexivity | exact Hp'] | reflexivity].
  - destruct (pps_out_sp dbg _ _ _ _ _ _ Hx Hpe He E) as (segs & last & Hs & Hl & -> & _).
    exists (Some (segs, last)). split; [right; split; [reflexivity | split; assumption] | reflexivity].
Qed.

(* set_path on a canonical record, result explicit *)
Theorem set_path_auth st sch ui h pt p q f x u' : auth_ok st sch ui h pt p q f -> auth_cls st p ->
  usv_list x -> forallb no_qh x = true -> path_arg_ok (st_is_special st) x ->
  set_path dbg (auth_url sch ui h pt p q f) x = Some u' ->
  exists p' hh, auth_cls st p' /\ u' = auth_url sch ui h pt p' q f
    /\ forall X, qh_ok X ->
         parse_path_start dbg CUrlParser st true (auth_front sch ui h pt) (x ++ X) = POk (auth_pre sch ui h pt p', hh, X).
Proof.
  intros K Hc Hx Hq Ha E. pose proof (auth_cls_nf st p Hc) as Hnf.
  pose proof (proj1 (auth_url_wf hp hpo hd HRT _ _ _ _ _ _ _ _ K)) as W.
  destruct (set_path_eval dbg _ x u' W (auth_byte_slash sch ui h pt p q f) Hx (auth_end_ok_auth st sch ui h pt p q f K Hnf) E)
    as (P & hh & rem & -> & _ & Epp).
  rewrite auth_stype, auth_front_cut in Epp. rewrite (ak_st _ _ _ _ _ _ _ _ _ _ _ K) in Epp.
  assert (forall X, qh_ok X ->
            parse_path_start dbg CUrlParser st true (auth_front sch ui h pt) (x ++ X) = POk (auth_front sch ui h pt ++ P, hh, X)) as G.
  { intros X HX. rewrite (path_start_ctx dbg st true _ x X Hq (qh_ok_tail X HX) (path_arg_tnl _ x Ha)). rewrite Epp. reflexivity. }
  pose proof (G [] I) as G0. rewrite app_nil_r in G0.
  assert (st = STNotSpecial \/ (st = STSpecialNotFile /\ ends_with_byte 47 (auth_front sch ui h pt) = false)) as Hcl.
  { destruct Hc as [[-> _]|[-> _]]; [left; reflexivity | right; split; [reflexivity|]].
    apply (front_not_slash hp hpo hd). exact (ak_h _ _ _ _ _ _ _ _ _ _ _ K). }
  destruct (pps_cls_out st _ x true _ hh [] Hcl Hx (path_arg_pe _ x Ha) G0) as (p' & Hc' & Es).
  apply app_inv_head in Es. subst P.
  exists p', hh. split; [exact Hc'|]. split; [|exact G].
  rewrite !auth_url_qf. unfold C02_Auth.auth_pre. apply with_path_qf.
Qed.

Lemma auth_ok_path st sch ui h pt p q f p' : auth_ok st sch ui h pt p q f -> pth_ok p' ->
  nlen (auth_ser sch ui h pt p' q f) <= U32_MAX_P -> auth_ok st sch ui h pt p' q f.
Proof.
  intros K Hp Hb. destruct K as [Ksch Kst Kui Kh Kemp Kpt Kp Kq Kf Kb Kbq Kbf].
  destruct (qf_bounds _ _ _ _ Hb) as [B1 B2]. constructor; assumption.
Qed.

Lemma splice_path_auth sch ui h pt p q f x :
  splice_path (auth_url sch ui h pt p q f) x
  = sch ++ 58 :: 47 :: 47 :: ui_text ui ++ hd h ++ port_text pt ++ x ++ qf_text q f.
Proof.
  rewrite auth_url_qf. unfold C02_Auth.auth_pre. rewrite splice_path_qf. unfold C02_Auth.auth_front.
  rewrite <- !app_assoc. reflexivity.
Qed.

Lemma path_arg_tail sp x X : path_arg_ok sp x -> qh_ok X -> tail_sp sp (x ++ X).
Proof.
  destruct x as [|c r]; cbn [path_arg_ok app].
  - intros _ H. apply tail_ok_sp. exact (C02_Auth.qh_tail X H).
  - intros H _. cbn [tail_sp]. destruct sp; lia.
Qed.

(* WHOLE-URL agreement for set_path on the classes with an authority *)
Theorem splice_path_auth_parse st sch ui h pt p q f x u' : auth_ok st sch ui h pt p q f -> auth_cls st p ->
  usv_list x -> forallb no_qh x = true -> path_arg_ok (st_is_special st) x ->
  (query_start (auth_url sch ui h pt p q f) = None -> fragment_start (auth_url sch ui h pt p q f) = None -> first_ok (rev x)) ->
  set_path dbg (auth_url sch ui h pt p q f) x = Some u' -> nlen (ser u') <= U32_MAX_P ->
  parse_url dbg hp hpo hd None None (splice_path (auth_url sch ui h pt p q f) x) = POk u'.
Proof.
  intros K Hc Hx Hq Ha Hl E Hb. pose proof (auth_cls_nf st p Hc) as Hnf.
  destruct (set_path_auth st sch ui h pt p q f x u' K Hc Hx Hq Ha E) as (p' & hh & Hc' & -> & G).
  cbn [ser C02_Auth.auth_url] in Hb.
  pose proof (auth_ok_path st sch ui h pt p q f p' K (pth_cls_ok st p' Hc') Hb) as K'.
  rewrite splice_path_auth.
  destruct K as [Ksch Kst Kui Kh Kemp Kpt Kp Kq Kf Kb Kbq Kbf].
  set (back := x ++ qf_text q f).
  assert (tail_sp (st_is_special st) back) as Htail by (apply path_arg_tail; [exact Ha | apply qf_qh_ok]).
  pose proof (front_len hd sch ui h pt) as FL. pose proof (ui_ulen_le ui) as UL.
  set (T := ui_text ui ++ hd h ++ port_text pt ++ back).
  assert (forallb okc (ui_text ui ++ hd h ++ port_text pt) = true) as Hfront.
  { rewrite !forallb_app. rewrite (ui_text_okc ui Kui), (host_okc hp hpo hd HRT st h Kh), (port_text_okc _ pt Kpt). reflexivity. }
  (* the whole text behind "scheme://" is empty only for "a://" with an empty argument: the canonical text itself *)
  destruct (list_eq_dec N.eq_dec T []) as [ET|ET].
  { unfold T, back in ET. apply app_eq_nil in ET. destruct ET as [E1 ET]. apply app_eq_nil in ET. destruct ET as [E2 ET].
    apply app_eq_nil in ET. destruct ET as [E3 ET]. apply app_eq_nil in ET. destruct ET as [E4 E5].
    subst x. specialize (G (qf_text q f) (qf_qh_ok q f)). cbn [app] in G.
    unfold T, back. cbn [app].
    destruct (Canon_fixpoint dbg hp hpo hd HRT (auth_url sch ui h pt p' q f)) as (Hfix & _ & Hasc).
    { destruct Hc' as [[-> Hp']|[-> Hp']]; [apply Canon_auth | apply Canon_special]; assumption. }
    unfold Fixpoint_of_reparse, reparse in Hfix. rewrite utf8_lossy_ascii in Hfix by exact Hasc.
    cbn [ser C02_Auth.auth_url] in Hfix. rewrite (auth_ser_shape hd) in Hfix.
    (* p' is the path the state writes for the empty argument: its text is what stands in the spliced text *)
    assert (pth_text p' = []) as Ep'.
    { destruct Hc' as [[-> Hp']|[-> Hp']].
      - pose proof (pps_canon dbg (auth_front sch ui h pt) None (qf_text q f) true I (qf_qh_ok q f)) as G1.
        cbn [pth_text app] in G1. rewrite G1 in G.
        inversion G as [[EG Eh]]. unfold C02_Auth.auth_pre in EG. rewrite app_nil_r in EG.
        rewrite <- (app_nil_r (auth_front sch ui h pt)) in EG at 1. apply app_inv_head in EG. symmetry. exact EG.
      - exfalso. destruct Kh as [[_ Esp]|(Hne & Ht & _)]; [discriminate Esp|]. destruct Ht as (_ & Hnn & _). contradiction. }
    rewrite Ep' in Hfix. exact Hfix. }
  apply (auth_parse dbg hp hpo hd st sch ui h pt p' q f T (hd h ++ port_text pt ++ back) back (qf_text q f) hh K').
  - destruct Hc as [[-> _]|[-> _]]; [left; reflexivity | right; split; [reflexivity|]].
    apply (rest_head hp hpo hd); assumption.
  - exact ET.
  - unfold T, back in ET |- *. rewrite (app_assoc (hd h)), (app_assoc (ui_text ui)) in ET |- *.
    apply first_ok_rev_parts; [| | | exact ET].
    + apply okc_above. exact Hfront.
    + apply okc_above. exact (qf_text_okc st q f Kq Kf).
    + intros Eqf. apply Hl; unfold qf_text in Eqf; destruct q; destruct f; cbn in Eqf; try discriminate; reflexivity.
  - apply parse_userinfo_canon; [exact Kui | | clear - Kb FL UL; llia].
    apply (auth_scan_sp hp hpo hd HRT st h pt _ Kh (fun E0 => proj2 (Kemp E0)) (port_ok_le _ _ Kpt) Htail).
  - apply (phap_canon_sp hp hpo hd HRT st Hnf); try assumption. exact (fun E0 => proj2 (Kemp E0)).
  - apply G. apply qf_qh_ok.
  - apply pqf_canon; [reflexivity | exact Kq | exact Kf | exact (ak_bq _ _ _ _ _ _ _ _ _ _ _ K') | exact (ak_bf _ _ _ _ _ _ _ _ _ _ _ K')].
Qed.

(* a canonical record with an authority is one of the two auth classes *)
Lemma Canon_auth_cases u : Canon hp hpo hd u -> has_authority_b u = true ->
  exists st sch ui h pt p q f, u = auth_url sch ui h pt p q f /\ auth_ok st sch ui h pt p q f /\ auth_cls st p.
Proof.
  intros C Hau. destruct C as [sch P q f K | sch segs last q f K | sch ui h pt p q f K | sch ui h pt p q f K Kp].
  - exfalso. pose proof (af_ue (wf_auth_facts _ (opaque_url_wf sch P q f K) Hau)) as B.
    cbn [username_end scheme_end opaque_url] in B. rewrite nlen_app in B. change (nlen [58]) with 1 in B. lia.
  - exfalso. pose proof (af_ue (wf_auth_facts _ (proj1 (noauth_url_wf sch segs last q f K)) Hau)) as B.
    cbn [username_end scheme_end noauth_url] in B. rewrite nlen_app in B. change (nlen [58]) with 1 in B. lia.
  - exists STNotSpecial, sch, ui, h, pt, p, q, f. split; [reflexivity|]. split; [exact K|].
    left. split; [reflexivity | exact (ak_p _ _ _ _ _ _ _ _ _ _ _ K)].
  - exists STSpecialNotFile, sch, ui, h, pt, p, q, f. split; [reflexivity|]. split; [exact K|]. right. split; [reflexivity | exact Kp].
Qed.

(* WHOLE-URL agreement for set_path: every canonical record with an authority; argument free of '?' / '#', empty or
   '/'-led; when the URL has neither query nor fragment the argument must not end in a C0 control or a space
   (Url::parse trims them from its input, the setter encodes them) *)
Theorem splice_agreement_set_path u x u' : Canon hp hpo hd u -> has_authority_b u = true ->
  usv_list x -> forallb no_qh x = true -> path_arg_ok (sp_of u) x ->
  (query_start u = None -> fragment_start u = None -> first_ok (rev x)) ->
  set_path dbg u x = Some u' -> nlen (ser u') <= U32_MAX_P ->
  parse_url dbg hp hpo hd None None (splice_path u x) = POk u'.
Proof.
  intros C Hau. destruct (Canon_auth_cases u C Hau) as (st & sch & ui & h & pt & p & q & f & -> & K & Hc).
  rewrite (sp_of_auth hp hpo hd _ _ _ _ _ _ _ _ K).
  exact (splice_path_auth_parse st sch ui h pt p q f x u' K Hc).
Qed.

(* and the result is canonical again *)
Theorem set_path_Canon u x u' : Canon hp hpo hd u -> has_authority_b u = true ->
  usv_list x -> forallb no_qh x = true -> path_arg_ok (sp_of u) x ->
  set_path dbg u x = Some u' -> nlen (ser u') <= U32_MAX_P -> Canon hp hpo hd u'.
Proof.
  intros C Hau Hx Hq Ha E Hb. destruct (Canon_auth_cases u C Hau) as (st & sch & ui & h & pt & p & q & f & -> & K & Hc).
  rewrite (sp_of_auth hp hpo hd _ _ _ _ _ _ _ _ K) in Ha.
  destruct (set_path_auth st sch ui h pt p q f x u' K Hc Hx Hq Ha E) as (p' & hh & Hc' & -> & _).
  cbn [ser C02_Auth.auth_url] in Hb.
  pose proof (auth_ok_path st sch ui h pt p q f p' K (pth_cls_ok st p' Hc') Hb) as K'.
  destruct Hc' as [[-> Hp']|[-> Hp']]; [apply Canon_auth | apply Canon_special]; assumption.
Qed.

End PathAuth.
