(* Proofs/C07_EqSix.v - the C07 equivalence for six of the ten setters - protocol, hash, search,
   username, password, port - assembled.  The relation is corrS: corr (Proofs/C07_Corr.v) together
   with the invariants `sane` of the Standard's record (Proofs/C07_SpecProto.v), which the decision
   of the protocol setter needs.  The five setters of Proofs/C07_EqFive.v keep `sane` (a fact about
   Spec/Whatwg.v alone), so one assignment through any of the six preserves corrS (six_step); the
   start URLs of the small scope and the whole opaque-path class of inputs are related by corrS. *)
From RU Require Import Base.Prelude Base.Utf8 Model.AsciiSet Gen.Tables Model.PercentEncoding
  Model.HostT Model.UrlRecord Model.Parser Model.Setters Model.WF Model.KnownC01 Model.KnownC07 Spec.Whatwg
  Proofs.ListN Proofs.C03_WF Proofs.C06_Suffix Proofs.C06_FragQuery Proofs.C06_Port Proofs.C02_Enc
  Proofs.C01_Tables Proofs.C01_EqRun Proofs.C01_EqApi Proofs.C01_EqOpaque
  Proofs.C07_Defs Proofs.C07_Histories Proofs.C07_Setters Proofs.C07_Corr Proofs.C07_SpecRun Proofs.C07_EqSearchHash
  Proofs.C07_EqCred Proofs.C07_EqPort Proofs.C07_Small Proofs.C07_EqFive Proofs.C07_EqOpaqueClass
  Proofs.C07_SpecProto Proofs.C07_EqProto Proofs.C01_EqRef Proofs.C07_EqRel.

(* the five setters keep the invariants of the Standard's record *)
Lemma sane_same_core su su' : sane su ->
  su_scheme su' = su_scheme su -> su_host su' = su_host su -> has_opaque_path su' = has_opaque_path su ->
  (cannot_have_username_password_port su = true ->
     su_port su' = su_port su /\ includes_credentials su' = includes_credentials su) ->
  sane su'.
Proof.
  intros [S1 S2 S3] E1 E2 E3 E4.
  constructor; unfold cannot_have_username_password_port, is_special in *; rewrite ?E1, ?E2, ?E3.
  - intros Hc. destruct (E4 Hc) as [-> ->]. exact (S1 Hc).
  - exact S2.
  - exact S3.
Qed.

Lemma pstrip_sane su : sane su -> sane (potentially_strip_trailing_spaces su).
Proof.
  intros S. rewrite pstrip_eval. destruct (strips su) eqn:Es; [|exact S].
  apply (sane_same_core su _ S); try reflexivity.
  - unfold strips in Es. apply andb_true_iff in Es. destruct Es as [Es _]. apply andb_true_iff in Es.
    destruct Es as [Es _]. unfold has_opaque_path in *. cbn [set_path su_path]. symmetry. exact Es.
  - intros _. split; reflexivity.
Qed.

Section FiveSane.
Variable shp : bool -> list N -> option spec_host.

Theorem spec_five_sane s su v su' : five s = true -> sane su -> spec_step shp s su v = Some su' -> sane su'.
Proof.
  intros Hs S H. unfold spec_step in H. destruct s; try discriminate Hs; cbn [setter_of_q] in H.
  - (* username *)
    cbn [spec_set] in H.
    destruct (cannot_have_username_password_port su) eqn:Ec; injection H as <-; [exact S|].
    apply (sane_same_core su _ S); try reflexivity. rewrite Ec. discriminate.
  - (* password *)
    cbn [spec_set] in H.
    destruct (cannot_have_username_password_port su) eqn:Ec; injection H as <-; [exact S|].
    apply (sane_same_core su _ S); try reflexivity. rewrite Ec. discriminate.
  - (* port *)
    cbn [spec_set] in H.
    destruct (cannot_have_username_password_port su) eqn:Ec; [injection H as <-; exact S|].
    destruct (list_eqb v []).
    + injection H as <-. apply (sane_same_core su _ S); try reflexivity. rewrite Ec. discriminate.
    + rewrite spec_port_some in H. injection H as <-. unfold port_outcome.
      destruct (take_digits (notnl v)) as [|d ds]; [exact S|].
      destruct (65535 <? decimal_value (d :: ds)); cbn [outcome_url]; [exact S|].
      apply (sane_same_core su _ S); try reflexivity. rewrite Ec. discriminate.
  - (* search *)
    rewrite spec_set_search_arg in H. destruct (setter_arg 63 v) as [inp|].
    + rewrite spec_search_some in H. injection H as <-.
      apply (sane_same_core su _ S); try reflexivity. intros _. split; reflexivity.
    + injection H as <-. apply pstrip_sane.
      apply (sane_same_core su _ S); try reflexivity. intros _. split; reflexivity.
  - (* hash *)
    rewrite spec_set_hash_arg in H. destruct (setter_arg 35 v) as [inp|].
    + rewrite spec_hash_some in H. injection H as <-.
      apply (sane_same_core su _ S); try reflexivity. intros _. split; reflexivity.
    + injection H as <-. apply pstrip_sane.
      apply (sane_same_core su _ S); try reflexivity. intros _. split; reflexivity.
Qed.

End FiveSane.

(* six setters *)
Definition six (s : qsetter) : bool :=
  match s with QProtocol | QHash | QSearch | QUsername | QPassword | QPort => true | _ => false end.

(* a history that uses the six setters only, with values that are strings of scalar values *)
Fixpoint six_ops (ops : list (qsetter * list N)) : Prop :=
  match ops with
  | [] => True
  | (s, v) :: r => six s = true /\ usv_list v /\ six_ops r
  end.

Definition corrS (dbg : bool) (shs : spec_host -> list N) (u : url) (su : spec_url) : Prop :=
  corr dbg shs u su /\ sane su.

Lemma corrS_api dbg shs u su : corrS dbg shs u su -> model_api dbg u = Some (spec_api_list shs su).
Proof. intros C. exact (corr_api dbg shs u su (proj1 C)). Qed.

(* ... and the invariants `sane` of the Standard's record: for a record whose scheme is not "file" and which,
   when special, has a host (base_shape_ok of Proofs/C01_EqShape.v) *)
Theorem related_corrS dbg shs u su :
  related dbg shs u su -> parse_extra dbg shs u su ->
  list_eqb (su_scheme su) str_file = false ->
  (is_special su = true -> opt_is_some (su_host su) = true) ->
  corrS dbg shs u su.
Proof.
  intros R X Hnf Hsp. pose proof (related_corr dbg shs u su R X) as C. split; [exact C|].
  destruct R as [W _ _ _ _ _ Hval]. destruct X as [_ _ XN _ _ _].
  pose proof (co_hh _ _ _ _ C) as Chh. pose proof (co_auth _ _ _ _ C) as Cau.
  pose proof (co_at _ _ _ _ C) as Cat. pose proof (co_port _ _ _ _ C) as Cpo.
  constructor.
  - unfold cannot_have_username_password_port. rewrite Hnf, orb_false_r. intros Hc.
    rewrite Hc in Chh. cbn [negb] in Chh. rewrite <- Cpo, <- Cat.
    destruct (has_authority_b u) eqn:Ha.
    + destruct (XN Chh eq_refl) as (E1 & E2 & _). rewrite E1, E2, N.eqb_refl. split; reflexivity.
    + split; [exact (nf_port (wf_noauth_facts u W Ha)) | reflexivity].
  - intros Hs. pose proof (Hsp Hs) as Hh. destruct (su_host su) as [h|] eqn:Esh; [|discriminate Hh].
    split; [reflexivity|]. intros _. cbn [host_is_null host_is_empty orb] in *.
    destruct h; try reflexivity. exfalso. cbn [negb opt_is_some] in *.
    destruct (XN Chh Cau) as (_ & _ & E3). congruence.
  - intros Ho. destruct Hval as [V1 _]. exact (proj1 (V1 Ho)).
Qed.

Section Six.
Variable dbg : bool.
Variable hp ho : list N -> result host.
Variable hd : host -> list N.
Variable shp : bool -> list N -> option spec_host.
Variable shs : spec_host -> list N.

Notation corrS := (corrS dbg shs).

Theorem six_step u su s v : corrS u su -> six s = true -> usv_list v -> known_c07 u s v = 0 ->
  exists u' su', model_set dbg hp ho hd s u v = Some u' /\ spec_step shp s su v = Some su' /\ corrS u' su'.
Proof.
  intros [C S] Hs Hv Hk.
  destruct (five s) eqn:H5.
  - destruct (five_step dbg hp ho hd shp shs u su s v C H5 Hv Hk) as (u' & su' & A & B & C').
    exists u', su'. split; [exact A|]. split; [exact B|]. split; [exact C'|].
    exact (spec_five_sane shp s su v su' H5 S B).
  - destruct s; try discriminate Hs; try discriminate H5. cbn [model_set].
    destruct (protocol_step dbg shp shs u su v C S Hk) as (u' & su' & A & B & C' & S').
    exists u', su'. split; [exact A|]. split; [exact B|]. split; assumption.
Qed.

(* parsing yields corrS on the opaque-path class of inputs *)
Theorem opaque_class_corrS input sch rem : usv_list input ->
  parse_scheme CUrlParser (input_new_trim_c0 input) = Some (sch, rem) ->
  scheme_type_of sch = STNotSpecial -> inp_split_prefix_char 47 rem = None ->
  exists su, spec_basic_url_parse shp input None = BDone su
    /\ (parse_url dbg hp ho hd None None input = PErr Overflow
        \/ exists u, parse_url dbg hp ho hd None None input = POk u /\ corrS u su).
Proof.
  intros Hu Hs Hns H47. eexists. split; [exact (spec_opaque shp input sch rem Hs Hns H47)|].
  destruct (model_opaque dbg hp ho hd None shp input sch rem Hu Hs Hns H47) as [E|[E K]]; [left; exact E|].
  right. eexists. split; [exact E|]. split; [apply corr_opaque; exact K|].
  assert (is_special_scheme sch = false) as Ens.
  { rewrite <- special_schemes_are_the_standards, Hns. reflexivity. }
  constructor; unfold cannot_have_username_password_port, is_special, includes_credentials;
    cbn [spec_opaque_url su_scheme su_username su_password su_host su_port su_path].
  - intros _. split; reflexivity.
  - rewrite Ens. discriminate.
  - reflexivity.
Qed.

End Six.

(* the start URLs of the small scope are related by corrS to their Standard's parse *)
Definition start_corrS_b (st : list N) : bool :=
  match toy_parse st, toy_sparse st with
  | Some u, Some su => corr_b true toy_shs u su && sane_b su
  | _, _ => false
  end.

Lemma small_starts_corrS_computed : forallb start_corrS_b small_starts = true.
Proof. vm_compute. reflexivity. Qed.

Lemma proto_starts_corrS_computed : forallb start_corrS_b proto_starts = true.
Proof. vm_compute. reflexivity. Qed.

Lemma starts_corrS l : forallb start_corrS_b l = true -> forall st, In st l ->
  exists u su, toy_parse st = Some u /\ toy_sparse st = Some su /\ corrS true toy_shs u su.
Proof.
  intros Hall st Hin. pose proof (proj1 (forallb_forall _ _) Hall st Hin) as H.
  unfold start_corrS_b in H. destruct (toy_parse st) as [u|]; [|discriminate H].
  destruct (toy_sparse st) as [su|]; [|discriminate H]. apply andb_true_iff in H. destruct H as [H1 H2].
  exists u, su. split; [reflexivity|]. split; [reflexivity|].
  split; [exact (corr_b_sound _ _ _ _ H1) | exact (sane_b_sound _ H2)].
Qed.

(* the invariants are needed *)
From Coq Require Import String.
Local Open Scope string_scope.
(* a pair related by corr whose Standard's record is not `sane` - "http:/p" without a host, which no
   parser or setter of the Standard produces: the code refuses http -> https (has_host() is false),
   the Standard carries it out; the assignment is outside Known_C07 *)
Definition nosane_u : url := mkUrl (str "http:/p") 4 5 5 5 HI_None None 5 None None.
Definition nosane_su : spec_url := mkSUrl (str "http") [] [] None None (SPList [str "p"]) None None.

