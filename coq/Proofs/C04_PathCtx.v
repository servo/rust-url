(* Proofs/C04_PathCtx.v - the path state in EVERY context (Context::UrlParser, Context::Setter,
   Context::PathSegmentSetter), any scheme type: C04_PathFile.loop_inv with the context as a section variable, and
   the entry point parse_path. *)
From RU Require Import Base.Prelude Base.Utf8 Model.AsciiSet Gen.Tables Model.PercentEncoding
  Model.HostT Model.UrlRecord Model.Parser
  Proofs.ListN Proofs.C06_List Proofs.C02_Parts Proofs.C04_PathTotal Proofs.C04_PathFile.

Section PathCtx.
Variables (dbg : bool) (ctx : context) (st : scheme_type) (ps k : N).
Hypothesis Hk : k <= ps + 1.

Notation loop := (parse_path_loop dbg ctx st ps).
Notation pinv := (path_inv ps k).
Notation pres_ok := (path_res st ps k).

Theorem loop_ctx l : forall ser ss pend hh, pinv ser ss -> pres_ok ser (loop l ser ss pend hh).
Proof using Hk. exact (loop_inv dbg st ps k Hk ctx l). Qed.

Theorem parse_path_ctx hh ser l : seg_inv ps k ser (nlen ser) ->
  pres_ok ser (parse_path dbg ctx st hh ps ser l).
Proof using Hk. intros I. unfold parse_path. apply loop_ctx. left. exact I. Qed.

(* the result keeps has_host's type and is never a panic *)
Corollary parse_path_ctx_ok hh ser l : seg_inv ps k ser (nlen ser) ->
  exists s2 hh' rem, parse_path dbg ctx st hh ps ser l = POk (file_path_fixup st ps s2, hh', rem)
                     /\ agree_pre k ser s2 /\ rem_ok rem.
Proof using Hk. intros I. exact (parse_path_ctx hh ser l I). Qed.

End PathCtx.

(* ---------- parse_path_start: the state that decides whether a '/' is put in front of the path ---------- *)
Section PathStart.
Variables (dbg : bool) (ctx : context) (st : scheme_type).
Hypothesis Hctx : ctx_eqb ctx CPathSegmentSetter = false.

Theorem parse_path_start_res hh ser l :
  path_res st (nlen ser) (nlen ser) ser (parse_path_start dbg ctx st hh ser l).
Proof using Hctx.
  set (ps := nlen ser).
  assert (Hpush : forall X, path_res st ps ps ser (parse_path dbg ctx st hh ps (ser ++ [47]) X)).
  { intros X. eapply path_res_pre; [apply agree_pre_app_le; lia|].
    apply parse_path_ctx; [lia | apply seg_inv_snoc; lia]. }
  assert (Hends : ends_with_byte 47 ser = true -> path_res st ps ps ser (parse_path dbg ctx st hh ps ser l)).
  { intros Ee. apply ends_with_byte_nnth in Ee. destruct Ee as [E1 E2].
    apply parse_path_ctx; [lia|]. unfold seg_inv. repeat split; try lia. exact E2. }
  assert (Hnone : drop_while is_tnl l = [] -> path_res st ps ps ser (parse_path dbg ctx st hh ps ser l)).
  { intros Ed. unfold parse_path. rewrite loop_ctx_drop_tnl, Ed. cbn [parse_path_loop push_pending].
    rewrite (finish_empty_any dbg st ps ser false hh). cbn [pbind].
    exists ser, hh, []. split; [reflexivity|]. split; [reflexivity | exact rem_ok_nil]. }
  unfold parse_path_start, inp_split_first, inp_next. fold ps.
  destruct (drop_while is_tnl l) as [|c r] eqn:Ed.
  - destruct (st_is_special st); [|apply Hnone; reflexivity].
    destruct (ends_with_byte 47 ser) eqn:Ee; cbn [negb]; [apply Hends; reflexivity | apply Hpush].
  - destruct (st_is_special st) eqn:Esp.
    + destruct (ends_with_byte 47 ser) eqn:Ee; cbn [negb]; [apply Hends; reflexivity|].
      destruct (is_slash_or_bslash c); apply Hpush.
    + destruct ((c =? 63) || (c =? 35)) eqn:Eq.
      { exists ser, hh, l. unfold file_path_fixup. replace (st_is_file st) with false by (destruct st; [discriminate Esp | |]; reflexivity).
        split; [reflexivity|]. split; [reflexivity|]. unfold rem_ok, inp_next. rewrite Ed. exact Eq. }
      destruct (c =? 47) eqn:E47; [|apply Hpush].
      apply N.eqb_eq in E47. subst c. unfold parse_path. rewrite loop_ctx_drop_tnl, Ed.
      cbn [parse_path_loop]. change (is_tnl 47) with false. cbv iota. rewrite Hctx. cbn [negb andb push_pending].
      rewrite N.eqb_refl. cbn [orb].
      rewrite (finish_empty_any dbg st ps ser true hh). cbn [pbind].
      eapply path_res_pre; [apply agree_pre_app_le; lia|].
      apply loop_ctx; [lia|]. left. apply seg_inv_snoc; lia.
Qed.
End PathStart.
