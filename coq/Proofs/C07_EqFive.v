(* Proofs/C07_EqFive.v - the C07 equivalence for the five setters that do not involve the host and
   path parsers - hash, search, username, password, port - assembled: one assignment preserves the
   relation corr (five_step); a boolean recogniser of corr (corr_b) and, by computation, the 20 start
   URLs of the small scope are related to their Standard's parse (small_starts_corr), so that for them
   the agreement holds for ALL values and ALL histories. *)
From RU Require Import Base.Prelude Base.Utf8 Model.AsciiSet Gen.Tables Model.PercentEncoding
  Model.HostT Model.UrlRecord Model.Parser Model.Setters Model.WF Model.KnownC01 Model.KnownC07 Spec.Whatwg
  Proofs.ListN Proofs.C03_WF Proofs.C06_Suffix Proofs.C06_FragQuery Proofs.C06_Port Proofs.C02_Enc Proofs.C01_EqApi
  Proofs.C07_Defs Proofs.C07_Histories Proofs.C07_Corr Proofs.C07_SpecRun Proofs.C07_EqSearchHash Proofs.C07_EqCred
  Proofs.C07_EqPort Proofs.C07_Small.

Definition five (s : qsetter) : bool :=
  match s with QHash | QSearch | QUsername | QPassword | QPort => true | _ => false end.

(* a history that uses the five setters only, with values that are strings of scalar values *)
Fixpoint five_ops (ops : list (qsetter * list N)) : Prop :=
  match ops with
  | [] => True
  | (s, v) :: r => five s = true /\ usv_list v /\ five_ops r
  end.

Section Five.
Variable dbg : bool.
Variable hp ho : list N -> result host.
Variable hd : host -> list N.
Variable shp : bool -> list N -> option spec_host.
Variable shs : spec_host -> list N.

Notation corr := (corr dbg shs).

Theorem five_step u su s v : corr u su -> five s = true -> usv_list v -> known_c07 u s v = 0 ->
  exists u' su', model_set dbg hp ho hd s u v = Some u' /\ spec_step shp s su v = Some su' /\ corr u' su'.
Proof.
  intros C Hs Hv Hk. destruct s; try discriminate Hs; cbn [model_set].
  - exact (username_step dbg shp shs u su v C Hv).
  - exact (password_step dbg shp shs u su v C Hv).
  - exact (port_step dbg shp shs u su v C Hk).
  - exact (search_step dbg shp shs u su v C Hv).
  - exact (hash_step dbg shp shs u su v C Hv).
Qed.

End Five.

(* a boolean recogniser of corr *)
Definition oeqb {A} (eqb : A -> A -> bool) (a b : option A) : bool :=
  match a, b with
  | Some x, Some y => eqb x y
  | None, None => true
  | _, _ => false
  end.

Lemma oeqb_sound {A} (eqb : A -> A -> bool) : (forall x y, eqb x y = true -> x = y) ->
  forall a b, oeqb eqb a b = true -> a = b.
Proof. intros H [x|] [y|] E; cbn in E; try discriminate; [f_equal; apply H; exact E | reflexivity]. Qed.

Lemma list_eqb_sound (x y : list N) : list_eqb x y = true -> x = y.
Proof. apply list_eqb_spec. Qed.

Definition host_text_ok_b (u : url) : bool :=
  negb (has_host u)
  || ((host_start u <? host_end u) && negb (byte_eqb (ser u) (host_start u) 58)
      && negb (byte_eqb (ser u) (host_start u) 64)).

Lemma host_text_ok_b_sound u : host_text_ok_b u = true -> host_text_ok u.
Proof.
  unfold host_text_ok_b, host_text_ok. intros H Hh. rewrite Hh in H. cbn [negb orb] in H.
  apply andb_true_iff in H. destruct H as [H H3]. apply andb_true_iff in H. destruct H as [H1 H2].
  apply negb_true_iff in H2. apply negb_true_iff in H3. repeat split; [lia | exact H2 | exact H3].
Qed.

Definition corr_b (dbg : bool) (shs : spec_host -> list N) (u : url) (su : spec_url) : bool :=
  wf_b u && host_text_ok_b u
  && oeqb list_eqb (scheme u) (Some (su_scheme su))
  && oeqb list_eqb (username dbg u) (Some (su_username su))
  && oeqb (oeqb list_eqb) (password dbg u) (Some (pw_opt (su_password su)))
  && oeqb list_eqb (host_text (host_str u)) (Some (serialize_host_opt shs (su_host su)))
  && Bool.eqb (has_host u) (negb (host_is_null (su_host su) || host_is_empty (su_host su)))
  && Bool.eqb (has_authority_b u) (opt_is_some (su_host su))
  && Bool.eqb (has_authority_b u && negb (username_end u =? host_start u)) (includes_credentials su)
  && opt_eqb (port u) (su_port su)
  && oeqb list_eqb (path u) (Some (serialize_path su))
  && oeqb (oeqb list_eqb) (query dbg u) (Some (su_query su))
  && oeqb (oeqb list_eqb) (fragment dbg u) (Some (su_fragment su))
  && Bool.eqb (negb (has_authority_b u) && (path_start u =? scheme_end u + 3)) (spec_marker su)
  && Bool.eqb (is_opaque_b u) (has_opaque_path su)
  && clean T_USERINFO (su_username su).

Theorem corr_b_sound dbg shs u su : corr_b dbg shs u su = true -> corr dbg shs u su.
Proof.
  unfold corr_b. intros H.
  repeat match type of H with (_ && _) = true => apply andb_true_iff in H; let K := fresh "K" in destruct H as [H K] end.
  constructor.
  - exact H.
  - apply host_text_ok_b_sound. assumption.
  - apply (oeqb_sound _ list_eqb_sound). assumption.
  - apply (oeqb_sound _ list_eqb_sound). assumption.
  - apply (oeqb_sound _ (oeqb_sound _ list_eqb_sound)). assumption.
  - apply (oeqb_sound _ list_eqb_sound). assumption.
  - apply Bool.eqb_prop. assumption.
  - apply Bool.eqb_prop. assumption.
  - apply Bool.eqb_prop. assumption.
  - apply opt_eqb_eq. assumption.
  - apply (oeqb_sound _ list_eqb_sound). assumption.
  - apply (oeqb_sound _ (oeqb_sound _ list_eqb_sound)). assumption.
  - apply (oeqb_sound _ (oeqb_sound _ list_eqb_sound)). assumption.
  - apply Bool.eqb_prop. assumption.
  - apply Bool.eqb_prop. assumption.
  - assumption.
Qed.

(* the start URLs of the small scope are related to their Standard's parse *)
Definition start_corr_b (st : list N) : bool :=
  match toy_parse st, toy_sparse st with
  | Some u, Some su => corr_b true toy_shs u su
  | _, _ => false
  end.

Lemma small_starts_corr_computed : forallb start_corr_b small_starts = true.
Proof. vm_compute. reflexivity. Qed.

Theorem small_starts_corr st : In st small_starts ->
  exists u su, toy_parse st = Some u /\ toy_sparse st = Some su /\ corr true toy_shs u su.
Proof.
  intros Hin. pose proof (proj1 (forallb_forall _ _) small_starts_corr_computed st Hin) as H.
  unfold start_corr_b in H. destruct (toy_parse st) as [u|]; [|discriminate H].
  destruct (toy_sparse st) as [su|]; [|discriminate H].
  exists u, su. split; [reflexivity|]. split; [reflexivity|]. exact (corr_b_sound _ _ _ _ H).
Qed.

