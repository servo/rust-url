(* Proofs/Idna_WalkNoPanic.v - Uts46::process / to_ascii / to_user_interface reach no panic site, outside the exact class
   of finding F-C11-2 (Known_C11, mark-errors mode only), for every adapter with AdapterNP (Proofs/C04_Uts46_Inner.v:
   process_inner is panic-free) and relative to EncOKInner: the internal Punycode encoder succeeds on every label of
   domain_buffer that is neither ASCII nor marked (discharged from the length cap of check_label and internal_main of
   Proofs/C13_Main.v in Proofs/Idna_WalkEnc.v).  Also: every text to_ascii returns is ASCII, for every adapter and deny
   list (to_ascii_returns_ascii_all; to_ascii_returns_ascii of Proofs/C04_Uts46_Api.v has the premises NvNoTrunc and
   valid_deny). *)
From RU Require Import Base.Prelude Base.Utf8 Base.U32_c13 Gen.Tables Model.Punycode Model.Uts46
  Proofs.C13_Ascii
  Proofs.Idna_Sim Proofs.Idna_Api Proofs.Idna_Known Proofs.Idna_Hyp Proofs.Idna_Redisc
  Proofs.Idna_C10_Deny Proofs.Idna_C10_Prefix Proofs.Idna_C10_Inner Proofs.Idna_C10_Walk
  Proofs.Idna_Mark Proofs.Idna_MarkWalk Proofs.Idna_MarkFffd Proofs.Idna_WalkFun Proofs.Idna_WalkInv Proofs.Idna_WalkApi
  Proofs.C04_Uts46_Inner.

(* enc_ok: the label is ASCII, or marked with U+FFFD, or the internal encoder succeeds on it *)
Definition enc_ok (cfg : bool) (l : list N) : Prop :=
  is_ascii_l l = true \/ fffd l = true \/ exists o, encode_internal cfg l = Ok o.
Definition EncOKInner (A : adapter) (cfg : bool) (hy : hyphens) (deny : N) (d : list N) : Prop :=
  match process_inner A cfg false hy deny d with
  | IRes _ _ _ db _ => Forall (enc_ok cfg) (split_on DOT db)
  | IPanic _ => True
  end.

Lemma outs_ok cfg uni labels : forall aps, Forall (enc_ok cfg) labels ->
  (forall l, In l labels -> uni l = false -> is_ascii_l l = false /\ fffd l = false) ->
  exists os, outs cfg uni labels aps = inl os.
Proof.
  induction labels as [|l ls IH]; intros aps He Hu; [exists []; reflexivity|].
  destruct aps as [|ip ips]; [exists []; reflexivity|]. inversion He as [|? ? Hl Hls]; subst.
  destruct (IH ips Hls (fun x Hx => Hu x (or_intror Hx))) as (os & Ho). cbn [outs]. rewrite Ho.
  destruct ip as [m|m|]; cbn [out_label]; [eauto| |].
  - destruct (uni l); eauto.
  - destruct (uni l) eqn:E; [eauto|]. destruct (Hu l (or_introl eq_refl) E) as [H1 H2].
    destruct Hl as [Hl|[Hl|(o & Hl)]]; [congruence|congruence|]. unfold enc_label. rewrite Hl. eauto.
Qed.

Lemma efffd_in labels l : efffd labels = false -> In l labels -> fffd l = false.
Proof.
  induction labels as [|x r IH]; intros H Hin; [destruct Hin|]. cbn [efffd existsb] in H. apply orb_false_iff in H.
  destruct Hin as [->|Hin]; [exact (proj1 H)|exact (IH (proj2 H) Hin)].
Qed.

Lemma uni1_mark_false p tld bd l : uni1 false p tld bd l = false -> is_ascii_l l = false /\ fffd l = false.
Proof.
  unfold uni1, pp1. destruct (classify_for_punycode l) eqn:E; try discriminate. intros _.
  split; [exact (classify_unicode_nonascii l E)|exact (classify_unicode_nofffd l E)].
Qed.

(* under pre_ok, if no label forces a write then no label of domain_buffer contains U+FFFD (so with had_errors set,
   outside Known_C11, some label forces a write: the use in process_no_panic) *)
Lemma stays_no_fffd p tld bd labels aps : pre_ok labels aps ->
  stays (uni1 false p tld bd) labels aps = true -> efffd labels = false.
Proof.
  induction 1 as [|lab ip labels aps Hip _ IH]; intros Hs; [reflexivity|]. cbn [stays] in Hs.
  apply andb_true_iff in Hs. destruct Hs as [H1 H2]. cbn [efffd existsb]. fold (efffd labels). rewrite (IH H2), orb_false_r.
  destruct ip as [m|m|]; cbn [stay_label] in H1; [exact Hip| |discriminate].
  apply andb_true_iff in H1. destruct H1 as [H1 _]. apply negb_true_iff in H1. exact (proj2 (uni1_mark_false _ _ _ _ H1)).
Qed.

Lemma to_lower_ascii c : is_ascii c -> is_ascii (to_lower c).
Proof. unfold is_ascii, to_lower, is_upper. intros H. destruct ((65 <=? c) && (c <=? 90)) eqn:E; lia. Qed.
Lemma lower_ascii m : ascii m -> ascii (map to_lower m).
Proof. intros H. apply Forall_forall. intros x Hx. apply in_map_iff in Hx. destruct Hx as (c & <- & Hc). unfold ascii in H. rewrite Forall_forall in H. exact (to_lower_ascii c (H c Hc)). Qed.
Lemma is_ascii_l_spec l : is_ascii_l l = true <-> ascii l.
Proof.
  unfold is_ascii_l, ascii. rewrite forallb_forall, Forall_forall. unfold is_ascii_cp, is_ascii.
  split; intros H x Hx; specialize (H x Hx); lia.
Qed.

Lemma outs_ascii cfg labels : forall aps os, Forall mixed_ascii aps -> outs cfg is_ascii_l labels aps = inl os -> Forall ascii os.
Proof.
  induction labels as [|l ls IH]; intros aps os Hm H; [inversion H; constructor|].
  destruct aps as [|ip ips]; [inversion H; constructor|]. cbn [outs] in H. inversion Hm as [|? ? Hip Hips]; subst.
  destruct (out_label cfg is_ascii_l l ip) as [o|s] eqn:Eo; [|discriminate].
  destruct (outs cfg is_ascii_l ls ips) as [os'|s] eqn:Eos; [|discriminate]. inversion H. subst os.
  constructor; [|exact (IH ips os' Hips Eos)].
  destruct ip as [m|m|]; cbn [out_label mixed_ascii] in *.
  - inversion Eo. exact (lower_ascii m Hip).
  - destruct (is_ascii_l l) eqn:E; inversion Eo; subst; [apply is_ascii_l_spec; exact E|exact (lower_ascii m Hip)].
  - destruct (is_ascii_l l) eqn:E; [inversion Eo; subst; apply is_ascii_l_spec; exact E|].
    unfold enc_label in Eo. destruct (encode_internal cfg l) as [o'| |s] eqn:Ee; inversion Eo.
    unfold encode_internal in Ee. apply encode_into_ascii in Ee.
    repeat (constructor; [unfold is_ascii; lia|]). exact Ee.
Qed.

Section NoPanic.
Variable A : adapter.
Variable cfg : bool.
Hypothesis HNP : AdapterNP A.

(* neither a panic nor a sink error *)
Definition status_fine (st : pstatus) : Prop := match st with PPanic _ | PSinkError => False | _ => True end.

Theorem process_no_panic ff p d deny hy w : bytes d -> EncOKInner A cfg hy deny d ->
  (ff = false -> Known_C11 A cfg d deny hy = false) ->
  status_fine (fst (fst (process A cfg ff p d deny hy None None w))).
Proof.
  intros Hb HE HK.
  destruct (process_inner A cfg ff hy deny d) as [ptu bd he db ap|site] eqn:Ei.
  2:{ exfalso. exact (process_inner_np A cfg HNP ff hy deny d Hb site Ei). }
  destruct (inner_facts A cfg ff hy deny d _ _ _ _ _ Hb Ei) as [(-> & -> & -> & Hne)|[(-> & -> & Ha)|[HB Hm]]].
  - unfold process. rewrite Ei. destruct (0 =? len d) eqn:E; [apply len_nil_iff in E; contradiction|]. exact I.
  - unfold process. rewrite Ei, N.eqb_refl, andb_false_r. exact I.
  - assert (Hne : ptu <> len d) by (destruct HB as [Hlt _]; lia).
    destruct (ff && he) eqn:Efh.
    { unfold process. rewrite Ei. replace (ptu =? len d) with false by (symmetry; apply N.eqb_neq; exact Hne). rewrite Efh. exact I. }
    pose proof HB as (_ & Hlen & He1 & Hfd & Hpo & P & rl & Hd & HP & Hcv & HaP & Hma).
    rewrite (process_B A cfg ff p d deny hy None None w _ _ _ _ _ Ei Hne Efh Hfd). cbv zeta. rewrite run_sink_none. cbn [negb].
    unfold EncOKInner in HE. rewrite Hm in HE.
    assert (Hffhe : ff = true -> he = false) by (intros ->; exact Efh).
    pose proof (walk1_spec cfg d he ff p (tld_of db) bd (split_on DOT db) ap false ptu false false P rl Hlen
                  ltac:(intros Hf; rewrite <- He1; exact (Hffhe Hf))
                  ltac:(intros _; split; [apply split_on_ne|cbn [tailtext]; repeat split; assumption])) as HW.
    destruct (outs_ok cfg (uni1 ff p (tld_of db) bd) (split_on DOT db) ap HE) as (os & Eo).
    { intros l Hin Hu. destruct ff.
      - split; [exact (uni1_false_nonascii _ _ _ _ _ Hu)|]. apply (efffd_in (split_on DOT db)); [|exact Hin].
        rewrite <- He1. exact (Hffhe eq_refl).
      - exact (uni1_mark_false _ _ _ _ Hu). }
    rewrite Eo in HW. unfold Post1, Res1 in HW. cbn [negb andb] in HW.
    destruct (stays (uni1 ff p (tld_of db) bd) (split_on DOT db) ap) eqn:Es.
    + destruct HW as [_ HW]. destruct (cfg && he) eqn:Ech; [|rewrite HW; exact I].
      exfalso. apply andb_true_iff in Ech. destruct Ech as [_ ->]. destruct ff; [specialize (Hffhe eq_refl); discriminate|].
      specialize (HK eq_refl). unfold Known_C11 in HK. rewrite Hm in HK.
      assert (Hpre : pre_ok (split_on DOT db) ap).
      { destruct bd; [|exact (Hpo eq_refl)]. cbn [andb] in HK. exact (known_c11_pre_ok _ _ Hlen HK). }
      rewrite (stays_no_fffd _ _ _ _ _ Hpre Es) in He1. discriminate.
    + destruct HW as [HW _]. rewrite HW. destruct he; [exact I|].
      destruct (huo_fin ff p (tld_of db) bd false (split_on DOT db) ap && w); [|exact I].
      rewrite run_sink_none. cbn [negb].
      pose proof (walk2_spec cfg d false (split_on DOT db) ap false ptu false P rl Hlen
                    ltac:(intros _; cbn [tailtext]; repeat split; assumption)) as HW2.
      destruct (outs_ok cfg is_ascii_l (split_on DOT db) ap HE) as (os2 & Eo2).
      { intros l Hin Hu. split; [exact Hu|]. apply (efffd_in (split_on DOT db)); [symmetry; exact He1|exact Hin]. }
      rewrite Eo2 in HW2. unfold Post2, Res2 in HW2. destruct HW2 as [HW2 _]. rewrite HW2. exact I.
Qed.

(* what to_ascii writes is ASCII *)
Theorem to_ascii_wrote_ascii d deny hy s1 s2 : bytes d ->
  process A cfg true never_unicode d deny hy None None false = (PWroteToSink, s1, s2) -> ascii s1.
Proof.
  intros Hb H.
  destruct (process_inner A cfg true hy deny d) as [ptu bd he db ap|site] eqn:Ei.
  2:{ unfold process in H. rewrite Ei in H. discriminate. }
  destruct (inner_facts A cfg true hy deny d _ _ _ _ _ Hb Ei) as [(_ & -> & -> & Hne)|[(-> & -> & Ha)|[HB Hm]]].
  - exfalso. unfold process in H. rewrite Ei in H.
    destruct (0 =? len d) eqn:E; [apply len_nil_iff in E; contradiction|]. discriminate.
  - exfalso. unfold process in H. rewrite Ei, N.eqb_refl, andb_false_r in H. discriminate.
  - assert (Hne : ptu <> len d) by (destruct HB as [Hlt _]; lia).
    destruct he.
    { exfalso. unfold process in H. rewrite Ei in H.
      replace (ptu =? len d) with false in H by (symmetry; apply N.eqb_neq; exact Hne). discriminate. }
    pose proof HB as (_ & Hlen & He1 & Hfd & Hpo & P & rl & Hd & HP & Hcv & HaP & Hma).
    rewrite (process_B A cfg true never_unicode d deny hy None None false _ _ _ _ _ Ei Hne eq_refl Hfd) in H.
    cbv zeta in H. rewrite run_sink_none in H. cbn [negb] in H.
    pose proof (walk1_spec cfg d false true never_unicode (tld_of db) bd (split_on DOT db) ap false ptu false false P rl Hlen
                  ltac:(intros _; symmetry; exact He1)
                  ltac:(intros _; split; [apply split_on_ne|cbn [tailtext]; repeat split; assumption])) as HW.
    rewrite (outs_agree cfg _ _ _ _ (agree_all _ _ (uni1_never (tld_of db) bd) _ _)) in HW.
    destruct (walk1 cfg true never_unicode d (tld_of db) bd false (split_on DOT db) ap false ptu false false) as [ws we].
    cbn [fst snd] in *. destruct we as [|huo|site]; [discriminate| |discriminate].
    rewrite andb_false_r in H. inversion H. subst s1 s2.
    unfold Post1 in HW. destruct (outs cfg is_ascii_l (split_on DOT db) ap) as [os|site] eqn:Eo; [|discriminate].
    unfold Res1 in HW. cbn [negb andb snd tailtext] in HW.
    destruct (stays (uni1 true never_unicode (tld_of db) bd) (split_on DOT db) ap).
    { destruct HW as [_ HW]. rewrite andb_false_r in HW. discriminate. }
    destruct HW as [_ HW]. unfold wcat in HW. cbn [fst] in HW. rewrite HW.
    apply ascii_app. split; [exact HaP|]. apply join_dots_Forall; [unfold is_ascii, DOT; lia|].
    exact (outs_ascii cfg _ _ _ Hma Eo).
Qed.

Theorem to_ascii_no_panic d deny hy dns : bytes d -> EncOKInner A cfg hy deny d ->
  forall site, to_ascii A cfg d deny hy dns <> Panic site.
Proof.
  intros Hb HE site. unfold to_ascii.
  pose proof (process_no_panic true never_unicode d deny hy false Hb HE ltac:(discriminate)) as HP.
  destruct (process A cfg true never_unicode d deny hy None None false) as [[st s1] s2] eqn:Ep. cbn [fst] in HP.
  destruct st; cbn [status_fine] in HP; try contradiction; try discriminate.
  - pose proof (passthrough_ascii_input A cfg true never_unicode d deny hy None None false s1 s2 Hb Ep) as Ha.
    apply is_ascii_l_spec in Ha. rewrite Ha. cbn [negb]. rewrite andb_false_r.
    destruct (negb (dns_is_ignore dns)); [|discriminate].
    destruct (negb (verify_dns_length d (dns_is_root dns))); discriminate.
  - pose proof (to_ascii_wrote_ascii d deny hy s1 s2 Hb Ep) as Ha.
    apply is_ascii_l_spec in Ha. rewrite Ha. cbn [negb]. rewrite andb_false_r.
    destruct (negb (dns_is_ignore dns)); [|discriminate].
    destruct (negb (verify_dns_length s1 (dns_is_root dns))); discriminate.
Qed.

Theorem to_ui_no_panic d deny hy p : bytes d -> EncOKInner A cfg hy deny d -> Known_C11 A cfg d deny hy = false ->
  forall site, to_user_interface A cfg d deny hy p <> UIPanic site.
Proof.
  intros Hb HE HK site. unfold to_user_interface.
  pose proof (process_no_panic false p d deny hy false Hb HE (fun _ => HK)) as HP.
  destruct (process A cfg false p d deny hy None None false) as [[st s1] s2]. cbn [fst] in HP.
  destruct st; cbn [status_fine] in HP; try contradiction; discriminate.
Qed.

(* every text to_ascii returns is ASCII: no premise on the adapter or the deny list *)
Theorem to_ascii_returns_ascii_all d deny hy dns b r : bytes d -> to_ascii A cfg d deny hy dns = Ok (b, r) -> ascii r.
Proof.
  intros Hb H. unfold to_ascii in H.
  destruct (process A cfg true never_unicode d deny hy None None false) as [[st s1] s2] eqn:Ep.
  destruct st; try discriminate.
  - pose proof (passthrough_ascii_input A cfg true never_unicode d deny hy None None false s1 s2 Hb Ep) as Ha.
    destruct (negb (dns_is_ignore dns)); [|inversion H; subst; exact Ha].
    destruct (cfg && negb (is_ascii_l d)); [discriminate|].
    destruct (negb (verify_dns_length d (dns_is_root dns))); [discriminate|inversion H; subst; exact Ha].
  - pose proof (to_ascii_wrote_ascii d deny hy s1 s2 Hb Ep) as Ha.
    destruct (negb (dns_is_ignore dns)); [|inversion H; subst; exact Ha].
    destruct (cfg && negb (is_ascii_l s1)); [discriminate|].
    destruct (negb (verify_dns_length s1 (dns_is_root dns))); [discriminate|inversion H; subst; exact Ha].
Qed.
End NoPanic.
