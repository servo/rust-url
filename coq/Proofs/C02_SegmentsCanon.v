(* Proofs/C02_SegmentsCanon.v - L2 for Url::path_segments_mut sessions on EVERY canonical record without the "/."
   marker (the marker case is the known class F-C03-5): opaque path - refused, unchanged; records with authority
   (classes (iii), (iv)) - C02_Segments.session_frame; records without authority (class (ii)) - session_frame plus
   C03_SessNoSS.session_no_ss (the new path never starts with "//", so no marker is needed). *)
From RU Require Import Base.Prelude Base.Utf8 Base.Utf8Facts Model.AsciiSet Gen.Tables
  Model.PercentEncoding Model.HostT Model.UrlRecord Model.Parser Model.Setters Model.WF
  Proofs.ListN Proofs.C06_List Proofs.C14_Set Proofs.C14_Enc Proofs.C02_Enc Proofs.C02_Parts
  Proofs.C02_Opaque Proofs.C02_Path Proofs.C02_PathL1 Proofs.C02_Reach Proofs.C02_AuthParts
  Proofs.C02_Auth Proofs.C02_AuthWf Proofs.C02_PathSp Proofs.C02_AuthSp Proofs.C02_AuthMain Proofs.C02_SetQF
  Proofs.C02_Canon Proofs.C02_SetPort Proofs.C02_SetHostFrame Proofs.C02_SetHostCanon Proofs.C02_SetScheme Proofs.C02_PathSetter
  Proofs.C02_SetPath Proofs.C02_SetHostNone Proofs.C02_SetPathNoAuth Proofs.C02_JoinTail Proofs.C02_JoinPath Proofs.C06_Segments Proofs.C02_Segments
  Proofs.C06_HostNone Proofs.C06_PathNoAuth Proofs.C03_SessNoSS.
Open Scope N_scope.
Open Scope list_scope.

Lemma psm_ok_usv ops : Forall psm_op_ok ops -> Forall psm_op_usv ops.
Proof. apply Forall_impl. intros o; destruct o; exact (fun x => x). Qed.

Section SessCanon.
Variable dbg : bool.
Variable hp hpo : list N -> result host.
Variable hd : host -> list N.
Hypothesis HRT : HostRT hp hpo hd.

Notation Canon := (Canon hp hpo hd).

Lemma PI_pth st X : PI st X -> exists p', X = pth_text p' /\ pth_ok p' /\ (st_is_special st = true -> pth_ok_sp p').
Proof.
  intros [[-> Hs] | (segs & last & -> & Hs & Hl)].
  - exists None. split; [reflexivity | split; [exact I | congruence]].
  - exists (Some (segs, last)). split; [reflexivity|]. unfold gseg in *. destruct (st_is_special st).
    + split; [split; [apply good_segs_sp_good; exact Hs | apply good_seg_sp_good; exact Hl] | intros _; split; assumption].
    + split; [split; assumption | discriminate].
Qed.

Lemma pth_PI st p : pth_ok p -> (st_is_special st = true -> pth_ok_sp p) -> PI st (pth_text p).
Proof.
  intros H1 H2. destruct p as [[segs last]|]; cbn [pth_text].
  - right. exists segs, last. split; [reflexivity|]. unfold gseg. destruct (st_is_special st).
    + exact (H2 eq_refl).
    + exact H1.
  - left. split; [reflexivity|]. destruct (st_is_special st); [destruct (H2 eq_refl) | reflexivity].
Qed.

Theorem session_auth st sch ui h pt p q f ops u' status : auth_ok hp hpo hd st sch ui h pt p q f -> st_is_file st = false ->
  (st = STSpecialNotFile -> pth_ok_sp p) -> Forall psm_op_usv ops ->
  path_segments_session dbg (auth_url hd sch ui h pt p q f) ops = Some (u', status) -> nlen (ser u') <= U32_MAX_P ->
  exists p', auth_ok hp hpo hd st sch ui h pt p' q f /\ (st = STSpecialNotFile -> pth_ok_sp p') /\ u' = auth_url hd sch ui h pt p' q f.
Proof.
  intros K Hnf Ksp Ho H Hb. pose proof (proj2 (auth_url_wf hp hpo hd HRT _ _ _ _ _ _ _ _ K)) as Hc.
  pose proof (ak_st _ _ _ _ _ _ _ _ _ _ _ K) as Hst.
  rewrite auth_url_qf in H, Hc. unfold auth_pre in H, Hc. rewrite (auth_front_Z hd) in H, Hc.
  assert (PI (scheme_type_of sch) (pth_text p)) as HP.
  { apply pth_PI; [exact (ak_p _ _ _ _ _ _ _ _ _ _ _ K)|]. rewrite Hst. destruct st; try discriminate; intros _; exact (Ksp eq_refl). }
  rewrite <- Hst in Hnf.
  destruct (session_frame dbg sch _ _ _ _ _ _ Hnf (pth_text p) q f ops u' status HP Ho Hc H) as (X' & HX' & ->).
  destruct (PI_pth _ X' HX') as (p' & -> & Hp' & Hsp'). rewrite <- (auth_front_Z hd) in *.
  assert (qf_url (auth_front hd sch ui h pt ++ pth_text p') (nlen sch) (nlen sch + 3 + ui_ulen ui) (nlen sch + 3 + nlen (ui_text ui))
                 (nlen sch + 3 + nlen (ui_text ui) + nlen (hd h)) (hi_of_host h) pt (nlen (auth_front hd sch ui h pt)) q f
          = auth_url hd sch ui h pt p' q f) as EU by (rewrite auth_url_qf; reflexivity).
  rewrite EU in *. exists p'. split; [exact (auth_ok_path hp hpo hd st sch ui h pt p q f p' K Hp' Hb)|]. split; [|reflexivity].
  intros E. apply Hsp'. rewrite Hst, E. reflexivity.
Qed.

Theorem psm_session_Canon u ops u' status : Canon u -> Forall psm_op_ok ops -> has_marker u = false ->
  path_segments_session dbg u ops = Some (u', status) -> nlen (ser u') <= U32_MAX_P -> Canon u'.
Proof.
  intros C Ho Hm H Hb. apply psm_ok_usv in Ho.
  destruct (Canon_cases hp hpo hd u C) as [(sch & P & q & f & K & ->) | [(sch & segs & last & q & f & K & ->) | (st & sch & ui & h & pt & p & q & f & Hnf & K & Kp & ->)]].
  - unfold path_segments_session, path_segments_mut in H. rewrite (opaque_url_cbb sch P q f K) in H. cbn [bindo] in H.
    inversion H; subst u'. exact (Canon_opaque hp hpo hd sch P q f K).
  - (* no authority, no marker *)
    rewrite (noauth_marker sch (path_text segs last) q f eq_refl) in Hm.
    destruct (noauth_url_wf sch segs last q f K) as (W & Hc & _).
    pose proof (nk_ns _ _ _ _ _ K) as Hns.
    set (u := noauth_url sch (path_text segs last) q f) in *.
    assert (status = SOk) as ->.
    { unfold path_segments_session, path_segments_mut in H. rewrite Hc in H. cbn [bindo] in H.
      destruct (psm_new dbg u) as [p0|]; cbn [bindo] in H; [|discriminate H].
      destruct (psm_run dbg p0 ops) as [p1|]; cbn [bindo] in H; [|discriminate H].
      destruct (psm_close dbg p1); cbn [bindo] in H; [|discriminate H]. inversion H. reflexivity. }
    assert (noauth_slash_path u) as NA.
    { split; [apply noauth_no_authority|]. unfold u. rewrite (noauth_url_nomarker sch _ q f Hm).
      cbn [qf_url ser scheme_end path_start]. split; [|rewrite nlen_app; reflexivity].
      unfold byte_eqb, path_text. replace (nlen sch + 1) with (nlen (sch ++ [58])) by (rewrite nlen_app; reflexivity).
      rewrite <- app_assoc. rewrite nnth_app_ge by lia. rewrite N.sub_diag. reflexivity. }
    assert (st_is_special (scheme_type_of (b_scheme u)) = false) as Hsp.
    { unfold u. rewrite noauth_url_qf. destruct (noauth_pre_sch sch (path_text segs last)) as [S1 S2].
      rewrite (b_scheme_qf _ _ _ _ _ _ _ _ q f sch S1 S2). rewrite Hns. reflexivity. }
    pose proof (session_no_ss dbg u ops u' W NA Hsp Ho H) as H2.
    unfold u in H, Hc. rewrite (noauth_url_nomarker sch _ q f Hm) in H, Hc. clear u C W NA Hsp.
    set (a := nlen (sch ++ [58])) in *.
    assert (forall X, qf_url ((sch ++ [58]) ++ X) (nlen sch) a a a HI_None None (nlen (sch ++ [58])) q f
                      = qf_url (((sch ++ [58]) ++ []) ++ X) (nlen sch) a a a HI_None None (nlen ((sch ++ [58]) ++ [])) q f) as EQ
      by (intros X; rewrite app_nil_r; reflexivity).
    rewrite EQ in H, Hc.
    assert (st_is_file (scheme_type_of sch) = false) as Hnf by (rewrite Hns; reflexivity).
    assert (PI (scheme_type_of sch) (path_text segs last)) as HP.
    { right. exists segs, last. split; [reflexivity|]. unfold gseg. rewrite Hns. cbn [st_is_special].
      split; [exact (nk_segs _ _ _ _ _ K) | exact (nk_last _ _ _ _ _ K)]. }
    destruct (session_frame dbg sch [] a a a HI_None None Hnf (path_text segs last) q f ops u' SOk HP Ho Hc H) as (X' & HX' & ->).
    rewrite <- EQ in *.
    destruct (PI_pth _ X' HX') as (p' & -> & Hp' & _).
    unfold a in *. cbn [qf_url ser] in Hb. rewrite <- app_assoc in Hb.
    apply (noauth_path_Canon hp hpo hd sch segs last q f p' K Hp'); [|exact Hb].
    unfold path_starts_with_2slash in H2. cbn [qf_url path_start ser] in H2.
    rewrite <- app_assoc in H2. rewrite nskipn_app_len in H2. exact H2.
  - destruct (session_auth st sch ui h pt p q f ops u' status K Hnf Kp Ho H Hb) as (p' & K' & Kp' & ->).
    exact (Canon_auth_st hp hpo hd st sch ui h pt p' q f Hnf K' Kp').
Qed.
End SessCanon.
