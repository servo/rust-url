(* Proofs/C06_SpliceCred.v - WHOLE-URL parser agreement, part 3: set_password and set_username on the canonical
   records with an authority: the setter maps auth_url .. ui .. to auth_url .. ui' .. (the userinfo rewritten, every
   offset behind it shifted), and Parser::parse_url on the old serialization with the RAW argument in that position
   returns exactly this record. *)
From RU Require Import Base.Prelude Base.Utf8 Base.Utf8Facts Model.AsciiSet Gen.Tables
  Model.PercentEncoding Model.HostT Model.UrlRecord Model.Parser Model.Setters Model.WF
  Proofs.ListN Proofs.C14_Set Proofs.C14_Enc Proofs.C14_Views Proofs.C02_Enc Proofs.C02_Parts
  Proofs.C02_Opaque Proofs.C02_Path Proofs.C02_PathL1 Proofs.C02_Reach Proofs.C16_RT Proofs.C02_AuthParts
  Proofs.C02_Auth Proofs.C02_AuthWf Proofs.C02_PathSp Proofs.C02_AuthSp Proofs.C02_AuthMain Proofs.C02_SetQF
  Proofs.C02_Canon Proofs.C02_SetPort Proofs.C06_List Proofs.C06_Suffix Proofs.C06_Cred Proofs.C06_Agree Proofs.C06_AgreeUrl Proofs.C06_Splice
  Proofs.C06_SpliceAuth.
Open Scope N_scope.
Open Scope list_scope.

(* the shape: A = scheme "://", U = username, TL = the rest of the userinfo, R = host port path *)
Definition cr_url (A U TL R : list N) (se dhe dps : N) (hi : host_internal) (pt : option N) (q f : option (list N)) : url :=
  qf_url (((A ++ U) ++ TL) ++ R) se (nlen (A ++ U)) (nlen ((A ++ U) ++ TL)) (nlen ((A ++ U) ++ TL) + dhe) hi pt
         (nlen ((A ++ U) ++ TL) + dps) q f.

Definition ui_user (ui : uinfo) : list N := match ui with UNone => [] | UUser u | UPw u _ => u end.
Definition ui_tail (ui : uinfo) : list N := match ui with UNone => [] | UUser _ => [64] | UPw _ p => 58 :: p ++ [64] end.

Lemma ui_text_split ui : ui_text ui = ui_user ui ++ ui_tail ui.
Proof. destruct ui; reflexivity. Qed.

Section Frame.
Variable dbg : bool.

Lemma cr_ser A U TL R se dhe dps hi pt q f :
  ser (cr_url A U TL R se dhe dps hi pt q f) = ((A ++ U) ++ TL) ++ R ++ qf_text q f.
Proof. unfold cr_url, qf_url. cbn [ser]. rewrite <- !app_assoc. reflexivity. Qed.

(* set_password with a non-empty argument *)
Theorem set_password_frame A U TL R se dhe dps hi pt q f y : usv_list y -> y <> [] ->
  cannot_have_credentials_or_port (cr_url A U TL R se dhe dps hi pt q f) = Some false ->
  set_password dbg (cr_url A U TL R se dhe dps hi pt q f) (Some y)
  = Some (cr_url A U (58 :: uenc y ++ [64]) R se dhe dps hi pt q f, SOk).
Proof.
  intros Hy Hne Hc. unfold set_password. rewrite Hc. cbn [bindo]. destruct y as [|y0 y']; [contradiction|].
  set (y := y0 :: y') in *.
  unfold u_slice_from. rewrite cr_ser.
  change (host_start (cr_url A U TL R se dhe dps hi pt q f)) with (nlen ((A ++ U) ++ TL)).
  change (username_end (cr_url A U TL R se dhe dps hi pt q f)) with (nlen (A ++ U)).
  change (host_end (cr_url A U TL R se dhe dps hi pt q f)) with (nlen ((A ++ U) ++ TL) + dhe).
  change (path_start (cr_url A U TL R se dhe dps hi pt q f)) with (nlen ((A ++ U) ++ TL) + dps).
  change (query_start (cr_url A U TL R se dhe dps hi pt q f)) with (qf_qs (nlen ((((A ++ U) ++ TL) ++ R))) q).
  change (fragment_start (cr_url A U TL R se dhe dps hi pt q f)) with (qf_fs (nlen ((((A ++ U) ++ TL) ++ R))) q f).
  rewrite slice_from_o_some by (rewrite !nlen_app; lia). rewrite nskipn_app_len. cbn [bindo].
  unfold truncate. rewrite <- (app_assoc (A ++ U)). rewrite nfirstn_app_len.
  rewrite push_encoded_eq by exact Hy. fold (uenc y).
  rewrite !adjust_ge by lia. cbn [bindo]. rewrite adjust_qs, adjust_fs. cbn [bindo].
  match goal with |- Some (?a, SOk) = Some (?b, SOk) => assert (a = b) as ->; [|reflexivity] end.
  unfold cr_url, qf_url. cbn [scheme_end hosti port]. f_equal; try (clear; llia); try (f_equal; clear; llia).
  rewrite <- !app_assoc. cbn [app]. rewrite <- !app_assoc. reflexivity.
Qed.

End Frame.

Lemma utf8_encode1_ascii_inv' c : Forall (fun b => b < 128) (utf8_encode1 c) -> utf8_encode1 c = [c].
Proof.
  unfold utf8_encode1. destruct (c <? 128) eqn:E1; [reflexivity|].
  destruct (c <? 2048) eqn:E2.
  { intros H. inversion H as [|? ? _ H1]; subst. inversion H1 as [|? ? Hx _]; subst. lia. }
  destruct (c <? 65536) eqn:E3.
  { intros H. inversion H as [|? ? _ H1]; subst. inversion H1 as [|? ? _ H2]; subst. inversion H2 as [|? ? Hx _]; subst. lia. }
  intros H. inversion H as [|? ? _ H1]; subst. inversion H1 as [|? ? _ H2]; subst. inversion H2 as [|? ? _ H3]; subst.
  inversion H3 as [|? ? Hx _]; subst. lia.
Qed.
Lemma utf8_encode_ascii_inv' l : ascii (utf8_encode l) -> utf8_encode l = l.
Proof.
  induction l as [|c r IH]; [reflexivity|]. unfold utf8_encode, ascii, is_ascii in *. cbn [flat_map]. intros H.
  apply Forall_app in H. destruct H as [H1 H2]. rewrite (utf8_encode1_ascii_inv' c H1), (IH H2). reflexivity.
Qed.

Lemma uenc_nil_inv x : uenc x = [] -> x = [].
Proof.
  destruct x as [|c r]; [reflexivity|]. unfold uenc, utf8_encode. cbn [flat_map]. unfold utf8_encode1.
  destruct (c <? 128); [|destruct (c <? 2048); [|destruct (c <? 65536)]]; cbn [app]; unfold encode; cbn [flat_map];
    match goal with |- context [if ?b then _ else _] => destruct b end; unfold enc_byte_spec; cbn [app]; discriminate.
Qed.

(* ':' y '@' behind the username *)
Definition splice_password (u : url) (y : list N) : list N :=
  nfirstn (username_end u) (ser u) ++ 58 :: y ++ 64 :: nskipn (host_start u) (ser u).
(* x in the username position; behind it the old ":password@" if there is one, otherwise '@' unless x is empty *)
Definition splice_username (u : url) (x : list N) : list N :=
  nfirstn (scheme_end u + 3) (ser u) ++ x
  ++ (if byte_eqb (ser u) (username_end u) 58 then nskipn (username_end u) (ser u)
      else match x with [] => [] | _ => [64] end ++ nskipn (host_start u) (ser u)).

(* is the scheme of the record special? *)
Definition sp_of (u : url) : bool := st_is_special (scheme_type_of (nfirstn (scheme_end u) (ser u))).

(* the canonical records with an authority *)
Section CredAuth.
Variable dbg : bool.
Variable hp hpo : list N -> result host.
Variable hd : host -> list N.
Hypothesis HRT : HostRT hp hpo hd.

Notation auth_ok := (auth_ok hp hpo hd).
Notation auth_url := (auth_url hd).
Notation auth_ser := (auth_ser hd).
Notation auth_front := (auth_front hd).
Notation host_ok := (host_ok hp hpo hd).

Lemma auth_url_cr sch ui h pt p q f :
  auth_url sch ui h pt p q f
  = cr_url (sch ++ s_css) (ui_user ui) (ui_tail ui) (hd h ++ port_text pt ++ pth_text p) (nlen sch) (nlen (hd h))
           (nlen (hd h ++ port_text pt)) (hi_of_host h) pt q f.
Proof.
  unfold C02_Auth.auth_url, cr_url, qf_url, C02_Auth.auth_ser, C02_Auth.auth_pre, C02_Auth.auth_front, s_css.
  rewrite (ui_text_split ui).
  assert (ui_ulen ui = nlen (ui_user ui)) as -> by (destruct ui; reflexivity).
  f_equal; try (clear; llia); try (f_equal; clear; llia).
  rewrite <- !app_assoc. reflexivity.
Qed.

Lemma auth_ok_ui st sch ui h pt p q f ui' : auth_ok st sch ui h pt p q f -> h <> HDomain [] -> ui_ok ui' ->
  nlen (auth_ser sch ui' h pt p q f) <= U32_MAX_P -> auth_ok st sch ui' h pt p q f.
Proof.
  intros K Hne Hui Hb. destruct K as [Ksch Kst Kui Kh Kemp Kpt Kp Kq Kf Kb Kbq Kbf].
  destruct (qf_bounds _ _ _ _ Hb) as [B1 B2]. constructor; try assumption.
  - intros E. contradiction.
  - unfold C02_Auth.auth_ser, C02_Auth.auth_pre in Hb. rewrite !nlen_app in Hb. lia.
Qed.

Lemma ui_user_clean ui : ui_ok ui -> clean T_USERINFO (ui_user ui) = true.
Proof. destruct ui as [|u|u p]; cbn [ui_ok ui_user]; [reflexivity | tauto | tauto]. Qed.

Lemma uenc_clean x : usv_list x -> clean T_USERINFO (uenc x) = true.
Proof. intros H. apply encode_is_clean; [reflexivity|]. apply utf8_encode_bytes. exact H. Qed.

Theorem set_password_auth st sch ui h pt p q f y : auth_ok st sch ui h pt p q f -> st_is_file st = false ->
  h <> HDomain [] -> usv_list y -> y <> [] ->
  set_password dbg (auth_url sch ui h pt p q f) (Some y)
  = Some (auth_url sch (UPw (ui_user ui) (uenc y)) h pt p q f, SOk).
Proof.
  intros K Hnf Hne Hy Hyn.
  pose proof (auth_cannot_port hp hpo hd st sch ui h pt p q f K Hnf) as Hc.
  assert (match h with HDomain [] => true | _ => false end = false) as Eh by (destruct h as [[|d0 d]|a|pcs]; try reflexivity; contradiction).
  rewrite Eh in Hc. rewrite (auth_url_cr sch (UPw (ui_user ui) (uenc y))). rewrite auth_url_cr in Hc |- *.
  exact (set_password_frame dbg _ _ _ _ _ _ _ _ _ _ _ y Hy Hyn Hc).
Qed.

Definition ui_set_user (ui : uinfo) (E : list N) : uinfo :=
  match ui with
  | UPw _ p => UPw E p
  | _ => match E with [] => UNone | _ => UUser E end
  end.

Lemma ui_set_user_ok ui E : ui_ok ui -> clean T_USERINFO E = true -> ui_ok (ui_set_user ui E).
Proof.
  intros Hui HE. destruct ui as [|u|u p]; cbn [ui_set_user ui_ok] in *.
  - destruct E; [exact I | split; [exact HE | discriminate]].
  - destruct E; [exact I | split; [exact HE | discriminate]].
  - tauto.
Qed.

Lemma hd_head st h : host_ok st h -> h <> HDomain [] -> exists c r, hd h = c :: r /\ c <> 58 /\ c <> 64.
Proof.
  intros [[-> _]|(Hne & Ht & _)] Hn; [contradiction|]. destruct (host_text_facts _ Ht) as [Hf H58].
  destruct Ht as (_ & Hnn & _). destruct (hd h) as [|c r] eqn:E; [contradiction|]. exists c, r. split; [reflexivity|].
  cbn [forallb] in Hf. apply andb_true_iff in Hf. destruct Hf as [Hc _]. unfold plainc in Hc.
  apply andb_true_iff in Hc. destruct Hc as [Hc _]. apply andb_true_iff in Hc. destruct Hc as [_ Hc]. apply negb_true_iff in Hc. lia.
Qed.

Lemma uenc_clean_id U : clean T_USERINFO U = true -> uenc U = U.
Proof. intros H. unfold uenc. rewrite utf8_encode_ascii by (apply (clean_ascii T_USERINFO); exact H). apply encode_clean. exact H. Qed.

(* the parser on the spliced texts *)
Definition auth_rest (h : host) (pt : option N) (p : pth) (q f : option (list N)) : list N :=
  hd h ++ port_text pt ++ pth_text p ++ qf_text q f.

Lemma auth_ser_rest sch ui h pt p q f : auth_ser sch ui h pt p q f = (sch ++ s_css) ++ ui_text ui ++ auth_rest h pt p q f.
Proof. unfold C02_Auth.auth_ser, C02_Auth.auth_pre, C02_Auth.auth_front, auth_rest, s_css. rewrite <- !app_assoc. reflexivity. Qed.

Lemma rest_above st sch ui h pt p q f : auth_ok st sch ui h pt p q f -> forallb above_space (auth_rest h pt p q f) = true.
Proof.
  intros K. pose proof (auth_ser_okc hp hpo hd HRT _ _ _ _ _ _ _ _ K) as H. rewrite auth_ser_rest in H.
  rewrite !forallb_app in H. apply andb_true_iff in H. destruct H as [_ H]. apply andb_true_iff in H. destruct H as [_ H].
  apply okc_above. exact H.
Qed.

Lemma rest_not_nil st h pt p q f : host_ok st h -> h <> HDomain [] -> auth_rest h pt p q f <> [].
Proof.
  intros Kh Hne. destruct (hd_head st h Kh Hne) as (c & r & E & _). unfold auth_rest. rewrite E. discriminate.
Qed.

(* the last three states on the canonical rest of the record *)
Lemma rest_states st sch ui h pt p q f : auth_ok st sch ui h pt p q f -> auth_cls st p ->
  (forall count last, scan_last_at (st_is_special st) (auth_rest h pt p q f) count last = last)
  /\ parse_host_and_port hp hpo hd CUrlParser st (nlen sch) (((sch ++ [58]) ++ [47; 47]) ++ ui_text ui) (auth_rest h pt p q f)
     = POk (auth_front sch ui h pt, nlen (((sch ++ [58]) ++ [47; 47]) ++ ui_text ui) + nlen (hd h), hi_of_host h, pt,
            pth_text p ++ qf_text q f)
  /\ parse_path_start dbg CUrlParser st true (auth_front sch ui h pt) (pth_text p ++ qf_text q f)
     = POk (C02_Auth.auth_pre hd sch ui h pt p, true, qf_text q f)
  /\ parse_query_and_fragment None CUrlParser st (nlen sch) (C02_Auth.auth_pre hd sch ui h pt p) (qf_text q f)
     = POk (auth_ser sch ui h pt p q f, qf_qs (nlen (C02_Auth.auth_pre hd sch ui h pt p)) q,
            qf_fs (nlen (C02_Auth.auth_pre hd sch ui h pt p)) q f).
Proof.
  intros K Hc. pose proof (auth_cls_nf st p Hc) as Hnf. destruct K as [Ksch Kst Kui Kh Kemp Kpt Kp Kq Kf Kb Kbq Kbf].
  assert (tail_ok (pth_text p ++ qf_text q f)) as Htail by (apply pth_tail; apply qf_qh_ok).
  split; [|split; [|split]].
  - apply (auth_scan hp hpo hd HRT st h pt _ Kh (fun E => proj2 (Kemp E)) (port_ok_le _ _ Kpt) Htail).
  - apply (phap_canon hp hpo hd HRT); try assumption. exact (fun E => proj2 (Kemp E)).
  - apply (pps_cls dbg hp hpo hd); [exact Kh | exact Hc | apply qf_qh_ok].
  - apply pqf_canon; [reflexivity | exact Kq | exact Kf | exact Kbq | exact Kbf].
Qed.

Lemma cr_slices A U TL R se dhe dps hi pt q f :
  nfirstn (nlen (A ++ U)) (ser (cr_url A U TL R se dhe dps hi pt q f)) = A ++ U
  /\ nskipn (nlen (A ++ U)) (ser (cr_url A U TL R se dhe dps hi pt q f)) = TL ++ R ++ qf_text q f
  /\ nskipn (nlen ((A ++ U) ++ TL)) (ser (cr_url A U TL R se dhe dps hi pt q f)) = R ++ qf_text q f
  /\ nfirstn (nlen A) (ser (cr_url A U TL R se dhe dps hi pt q f)) = A
  /\ byte_eqb (ser (cr_url A U TL R se dhe dps hi pt q f)) (nlen (A ++ U)) 58 = head_is (TL ++ R ++ qf_text q f) 58.
Proof.
  rewrite cr_ser. split; [|split; [|split; [|split]]].
  - rewrite <- (app_assoc (A ++ U)). apply nfirstn_app_len.
  - rewrite <- (app_assoc (A ++ U)). apply nskipn_app_len.
  - apply nskipn_app_len.
  - rewrite <- (app_assoc (A ++ U)), <- (app_assoc A). apply nfirstn_app_len.
  - rewrite <- (app_assoc (A ++ U)). apply byte_eqb_head. reflexivity.
Qed.

(* with_username on this shape: the userinfo is rewritten, the rest of the record moves *)
Lemma with_username_cr A U TL R se dhe dps hi pt q f E : nlen A = se + 3 ->
  with_username (cr_url A U TL R se dhe dps hi pt q f) E
  = cr_url A E (if head_is (TL ++ R ++ qf_text q f) 58 then TL else match E with [] => [] | _ => [64] end) R se dhe dps hi pt q f.
Proof.
  intros HA. unfold with_username.
  destruct (cr_slices A U TL R se dhe dps hi pt q f) as (C1 & C2 & C3 & C4 & C5).
  change (username_end (cr_url A U TL R se dhe dps hi pt q f)) with (nlen (A ++ U)).
  change (host_start (cr_url A U TL R se dhe dps hi pt q f)) with (nlen ((A ++ U) ++ TL)).
  change (scheme_end (cr_url A U TL R se dhe dps hi pt q f)) with se.
  rewrite C5. rewrite <- HA.
  assert (forall b t TL', nskipn b (ser (cr_url A U TL R se dhe dps hi pt q f)) = TL' ++ R ++ qf_text q f ->
            nlen (A ++ U) <= b -> b <= nlen ((A ++ U) ++ TL) -> nlen ((A ++ U) ++ TL) - b = nlen TL' ->
            cred_splice (cr_url A U TL R se dhe dps hi pt q f) (nlen A) b (E ++ t) (nlen A + nlen E)
            = cr_url A E (t ++ TL') R se dhe dps hi pt q f) as G.
  { intros b t TL' Hsk B1 B2 B3. unfold cred_splice. rewrite C4, Hsk.
    change (host_start (cr_url A U TL R se dhe dps hi pt q f)) with (nlen ((A ++ U) ++ TL)).
    change (host_end (cr_url A U TL R se dhe dps hi pt q f)) with (nlen ((A ++ U) ++ TL) + dhe).
    change (path_start (cr_url A U TL R se dhe dps hi pt q f)) with (nlen ((A ++ U) ++ TL) + dps).
    change (query_start (cr_url A U TL R se dhe dps hi pt q f)) with (qf_qs (nlen (((A ++ U) ++ TL) ++ R)) q).
    change (fragment_start (cr_url A U TL R se dhe dps hi pt q f)) with (qf_fs (nlen (((A ++ U) ++ TL) ++ R)) q f).
    change (scheme_end (cr_url A U TL R se dhe dps hi pt q f)) with se.
    change (hosti (cr_url A U TL R se dhe dps hi pt q f)) with hi. change (port (cr_url A U TL R se dhe dps hi pt q f)) with pt.
    unfold cr_url, qf_url, shift. rewrite !nlen_app in *.
    f_equal; try lia.
    - rewrite <- !app_assoc. reflexivity.
    - destruct q; cbn [qf_qs option_map]; [f_equal; lia | reflexivity].
    - destruct f; cbn [qf_fs option_map]; [f_equal; lia | reflexivity]. }
  destruct (head_is (TL ++ R ++ qf_text q f) 58).
  - rewrite <- (app_nil_l TL) at 2. apply G; [exact C2 | lia | rewrite !nlen_app; lia | rewrite !nlen_app; lia].
  - rewrite <- (app_nil_r (match E with [] => [] | _ => [64] end)) at 2. apply G; [exact C3 | rewrite !nlen_app; lia | lia | rewrite N.sub_diag; reflexivity].
Qed.

(* set_username computes with_username (C06_Cred.set_username_eval); on this shape that is the canonical record again *)
Theorem set_username_auth st sch ui h pt p q f x : auth_ok st sch ui h pt p q f -> st_is_file st = false ->
  h <> HDomain [] -> usv_list x ->
  set_username dbg (auth_url sch ui h pt p q f) x
  = Some (auth_url sch (ui_set_user ui (uenc x)) h pt p q f, SOk).
Proof.
  intros K Hnf Hne Hx.
  pose proof (auth_cannot_port hp hpo hd st sch ui h pt p q f K Hnf) as Ec.
  assert (match h with HDomain [] => true | _ => false end = false) as Eh by (destruct h as [[|d0 d]|a|pcs]; try reflexivity; contradiction).
  rewrite Eh in Ec. pose proof (ak_ui _ _ _ _ _ _ _ _ _ _ _ K) as Kui.
  destruct (hd_head st h (ak_h _ _ _ _ _ _ _ _ _ _ _ K) Hne) as (c0 & r0 & Ehd & Hc58 & Hc64).
  pose proof (proj1 (auth_url_wf hp hpo hd HRT _ _ _ _ _ _ _ _ K)) as W.
  rewrite (auth_url_cr sch (ui_set_user ui (uenc x))). rewrite (auth_url_cr sch ui) in *.
  set (A := sch ++ s_css) in *. set (R := hd h ++ port_text pt ++ pth_text p) in *.
  destruct (cr_slices A (ui_user ui) (ui_tail ui) R (nlen sch) (nlen (hd h)) (nlen (hd h ++ port_text pt)) (hi_of_host h) pt q f)
    as (C1 & C2 & C3 & C4 & C5).
  assert (nlen A = nlen sch + 3) as LA by (unfold A; rewrite nlen_app; reflexivity).
  assert (head_is (R ++ qf_text q f) 58 = false /\ head_is (R ++ qf_text q f) 64 = false) as [R58 R64].
  { unfold R. rewrite Ehd. cbn [app head_is]. split; apply N.eqb_neq; assumption. }
  assert (has_host (cr_url A (ui_user ui) (ui_tail ui) R (nlen sch) (nlen (hd h)) (nlen (hd h ++ port_text pt)) (hi_of_host h) pt q f) = true) as Hh.
  { unfold has_host. change (hosti (cr_url _ _ _ _ _ _ _ _ _ _ _)) with (hi_of_host h). destruct h as [[|d0 d]|a|pcs]; try reflexivity. contradiction. }
  assert (host_text_ok (cr_url A (ui_user ui) (ui_tail ui) R (nlen sch) (nlen (hd h)) (nlen (hd h ++ port_text pt)) (hi_of_host h) pt q f)) as HT.
  { intros _. change (host_start (cr_url _ _ _ _ _ _ _ _ _ _ _)) with (nlen ((A ++ ui_user ui) ++ ui_tail ui)).
    change (host_end (cr_url _ _ _ _ _ _ _ _ _ _ _)) with (nlen ((A ++ ui_user ui) ++ ui_tail ui) + nlen (hd h)).
    rewrite cr_ser. rewrite !(byte_eqb_head _ _ _ _ eq_refl). rewrite Ehd, nlen_cons. split; [lia | split; assumption]. }
  rewrite (set_username_eval dbg _ x W HT Hh Ec).
  change (username_end (cr_url _ _ _ _ _ _ _ _ _ _ _)) with (nlen (A ++ ui_user ui)).
  change (scheme_end (cr_url _ _ _ _ _ _ _ _ _ _ _)) with (nlen sch).
  rewrite <- LA.
  assert (nfirstn (nlen (A ++ ui_user ui) - nlen A) (nskipn (nlen A) (ser (cr_url A (ui_user ui) (ui_tail ui) R (nlen sch) (nlen (hd h))
            (nlen (hd h ++ port_text pt)) (hi_of_host h) pt q f))) = ui_user ui) as ->.
  { rewrite cr_ser, <- !app_assoc, nskipn_app_len, nlen_app. replace (nlen A + nlen (ui_user ui) - nlen A) with (nlen (ui_user ui)) by lia.
    apply nfirstn_app_len. }
  do 2 f_equal. destruct (list_eqb (ui_user ui) (utf8_encode x)) eqn:Hsc.
  - apply list_eqb_spec in Hsc. pose proof (ui_user_clean ui Kui) as Hcl.
    assert (utf8_encode x = x) as Ex by (apply utf8_encode_ascii_inv'; rewrite <- Hsc; apply (clean_ascii T_USERINFO); exact Hcl).
    rewrite Ex in Hsc. subst x. rewrite (uenc_clean_id _ Hcl).
    destruct ui as [|u|u pw]; cbn [ui_set_user ui_user]; try reflexivity.
    destruct Kui as [_ Hn]. destruct u; [contradiction | reflexivity].
  - replace (userinfo_enc x) with (uenc x) by (symmetry; apply pe_display_utf8; exact Hx).
    rewrite (with_username_cr _ _ _ _ _ _ _ _ _ _ _ _ LA).
    destruct ui as [|u|u pw]; cbn [ui_tail ui_user ui_set_user app head_is]; rewrite ?R58; try reflexivity;
      destruct (uenc x); reflexivity.
Qed.

(* WHOLE-URL agreement for set_password (non-empty argument free of TAB/LF/CR, '@' and the authority delimiters) *)
Theorem splice_password_auth_parse st sch ui h pt p q f y u' : auth_ok st sch ui h pt p q f -> auth_cls st p ->
  usv_list y -> y <> [] -> forallb (plainc (st_is_special st)) y = true ->
  set_password dbg (auth_url sch ui h pt p q f) (Some y) = Some (u', SOk) -> h <> HDomain [] -> nlen (ser u') <= U32_MAX_P ->
  parse_url dbg hp hpo hd None None (splice_password (auth_url sch ui h pt p q f) y) = POk u'.
Proof.
  intros K Hc Hy Hyn Hpl E Hne Hb. pose proof (auth_cls_nf st p Hc) as Hnf.
  rewrite (set_password_auth st sch ui h pt p q f y K Hnf Hne Hy Hyn) in E. inversion E; subst u'. clear E.
  cbn [ser C02_Auth.auth_url] in Hb.
  pose proof (ak_ui _ _ _ _ _ _ _ _ _ _ _ K) as Kui. pose proof (ui_user_clean ui Kui) as Hcl.
  assert (ui_ok (UPw (ui_user ui) (uenc y))) as Kui'.
  { split; [exact Hcl|]. split; [apply uenc_clean; exact Hy|]. intros E0. apply uenc_nil_inv in E0. contradiction. }
  pose proof (auth_ok_ui st sch ui h pt p q f _ K Hne Kui' Hb) as K'.
  destruct (rest_states st sch (UPw (ui_user ui) (uenc y)) h pt p q f K' Hc) as (S1 & S2 & S3 & S4).
  pose proof (rest_above _ _ _ _ _ _ _ _ K) as Hab. pose proof (rest_not_nil st h pt p q f (ak_h _ _ _ _ _ _ _ _ _ _ _ K) Hne) as Hrn.
  assert (splice_password (auth_url sch ui h pt p q f) y
          = sch ++ 58 :: 47 :: 47 :: (ui_user ui ++ 58 :: y ++ 64 :: auth_rest h pt p q f)) as ->.
  { unfold splice_password. rewrite auth_url_cr.
    change (username_end (cr_url (sch ++ s_css) (ui_user ui) (ui_tail ui) (hd h ++ port_text pt ++ pth_text p) (nlen sch) (nlen (hd h))
              (nlen (hd h ++ port_text pt)) (hi_of_host h) pt q f)) with (nlen ((sch ++ s_css) ++ ui_user ui)).
    change (host_start (cr_url (sch ++ s_css) (ui_user ui) (ui_tail ui) (hd h ++ port_text pt ++ pth_text p) (nlen sch) (nlen (hd h))
              (nlen (hd h ++ port_text pt)) (hi_of_host h) pt q f)) with (nlen (((sch ++ s_css) ++ ui_user ui) ++ ui_tail ui)).
    destruct (cr_slices (sch ++ s_css) (ui_user ui) (ui_tail ui) (hd h ++ port_text pt ++ pth_text p) (nlen sch) (nlen (hd h))
              (nlen (hd h ++ port_text pt)) (hi_of_host h) pt q f) as (C1 & _ & C3 & _). rewrite C1, C3.
    unfold auth_rest, s_css. rewrite <- !app_assoc. reflexivity. }
  pose proof (ak_b _ _ _ _ _ _ _ _ _ _ _ K') as Kb'. pose proof (front_len hd sch (UPw (ui_user ui) (uenc y)) h pt) as FL.
  apply (auth_parse dbg hp hpo hd st sch (UPw (ui_user ui) (uenc y)) h pt p q f _ (auth_rest h pt p q f) (pth_text p ++ qf_text q f) (qf_text q f) true K').
  - destruct Hc as [[-> _]|[-> _]]; [left; reflexivity | right; split; [reflexivity|]].
    destruct (ui_user ui) as [|c r] eqn:EU; [cbn [app]; split; reflexivity|]. cbn [app]. apply plain_not_slash.
    pose proof (clean_ui_plain true _ Hcl) as Hp. cbn [forallb] in Hp. apply andb_true_iff in Hp. tauto.
  - intros E0. apply (f_equal (@length N)) in E0. rewrite !app_length in E0. cbn [length] in E0. lia.
  - replace (ui_user ui ++ 58 :: y ++ 64 :: auth_rest h pt p q f) with ((ui_user ui ++ 58 :: y ++ [64]) ++ auth_rest h pt p q f)
      by (rewrite <- !app_assoc; cbn [app]; rewrite <- !app_assoc; reflexivity). apply first_ok_rev_app; [exact Hrn | apply forallb_above; exact Hab].
  - cbn [ui_text ui_ulen]. rewrite <- !app_assoc.
    rewrite (parse_userinfo_raw_pw st _ (ui_user ui) y (auth_rest h pt p q f) Hy Hcl Hpl Hyn S1) by (clear - Kb' FL; cbn [ui_text] in FL; llia).
    rewrite <- !app_assoc. reflexivity.
  - exact S2.
  - exact S3.
  - exact S4.
Qed.

Lemma rest_first_ok st sch ui h pt p q f Y : auth_ok st sch ui h pt p q f -> h <> HDomain [] ->
  first_ok (rev (Y ++ auth_rest h pt p q f)).
Proof.
  intros K Hne. apply first_ok_rev_app; [exact (rest_not_nil st h pt p q f (ak_h _ _ _ _ _ _ _ _ _ _ _ K) Hne)|].
  apply forallb_above. exact (rest_above _ _ _ _ _ _ _ _ K).
Qed.

(* a raw username x, an optional canonical password, '@' *)
Lemma user_parse st sch ui' h pt p q f x pw : auth_ok st sch ui' h pt p q f -> auth_cls st p -> h <> HDomain [] ->
  ui_text ui' = uenc x ++ pw_text pw ++ [64] -> ui_ulen ui' = nlen (uenc x) ->
  usv_list x -> forallb (fun c => plainc (st_is_special st) c && negb (c =? 58)) x = true ->
  match pw with Some p0 => clean T_USERINFO p0 = true /\ p0 <> [] | None => x <> [] end ->
  parse_url dbg hp hpo hd None None (sch ++ 58 :: 47 :: 47 :: x ++ pw_text pw ++ 64 :: auth_rest h pt p q f)
  = POk (auth_url sch ui' h pt p q f).
Proof.
  intros K' Hc Hne Et El Hx Hpl Hpw.
  destruct (rest_states st sch ui' h pt p q f K' Hc) as (S1 & S2 & S3 & S4).
  pose proof (ak_b _ _ _ _ _ _ _ _ _ _ _ K') as Kb'. pose proof (front_len hd sch ui' h pt) as FL. pose proof (ui_ulen_le ui') as UL.
  apply (auth_parse dbg hp hpo hd st sch ui' h pt p q f _ (auth_rest h pt p q f) (pth_text p ++ qf_text q f) (qf_text q f) true K').
  - destruct Hc as [[-> _]|[-> _]]; [left; reflexivity | right; split; [reflexivity|]].
    destruct x as [|c r]; cbn [app].
    + destruct pw as [p0|]; [cbn [pw_text app]; split; reflexivity | contradiction].
    + apply plain_not_slash. cbn [forallb st_is_special] in Hpl. apply andb_true_iff in Hpl. destruct Hpl as [Hpl _].
      apply andb_true_iff in Hpl. tauto.
  - intros E0. apply (f_equal (@length N)) in E0. rewrite !app_length in E0. cbn [length] in E0. lia.
  - replace (x ++ pw_text pw ++ 64 :: auth_rest h pt p q f) with ((x ++ pw_text pw ++ [64]) ++ auth_rest h pt p q f)
      by (rewrite <- !app_assoc; cbn [app]; reflexivity).
    exact (rest_first_ok st sch ui' h pt p q f _ K' Hne).
  - rewrite (parse_userinfo_raw_user st _ x pw (auth_rest h pt p q f) Hx Hpl Hpw S1) by (clear - Kb' FL UL El; llia).
    rewrite Et, El. reflexivity.
  - exact S2.
  - exact S3.
  - exact S4.
Qed.

(* no userinfo at all *)
Lemma nouser_parse st sch h pt p q f : auth_ok st sch UNone h pt p q f -> auth_cls st p -> h <> HDomain [] ->
  parse_url dbg hp hpo hd None None (sch ++ 58 :: 47 :: 47 :: auth_rest h pt p q f) = POk (auth_url sch UNone h pt p q f).
Proof.
  intros K' Hc Hne.
  destruct (rest_states st sch UNone h pt p q f K' Hc) as (S1 & S2 & S3 & S4).
  pose proof (ak_b _ _ _ _ _ _ _ _ _ _ _ K') as Kb'. pose proof (front_len hd sch UNone h pt) as FL.
  apply (auth_parse dbg hp hpo hd st sch UNone h pt p q f _ (auth_rest h pt p q f) (pth_text p ++ qf_text q f) (qf_text q f) true K').
  - destruct Hc as [[-> _]|[-> _]]; [left; reflexivity | right; split; [reflexivity|]].
    exact (rest_head hp hpo hd UNone h _ I (ak_h _ _ _ _ _ _ _ _ _ _ _ K')).
  - exact (rest_not_nil st h pt p q f (ak_h _ _ _ _ _ _ _ _ _ _ _ K') Hne).
  - exact (rest_first_ok st sch UNone h pt p q f [] K' Hne).
  - apply (parse_userinfo_canon st _ UNone); [exact I | exact S1 | clear - Kb' FL; cbn [ui_ulen]; llia].
  - exact S2.
  - exact S3.
  - exact S4.
Qed.

(* no password: a raw username x followed by '@', or nothing at all for the empty x *)
Lemma nopw_parse st sch h pt p q f x :
  auth_ok st sch (match uenc x with [] => UNone | _ :: _ => UUser (uenc x) end) h pt p q f -> auth_cls st p ->
  h <> HDomain [] -> usv_list x -> forallb (fun c => plainc (st_is_special st) c && negb (c =? 58)) x = true ->
  parse_url dbg hp hpo hd None None
    ((sch ++ s_css) ++ x ++ match x with [] => [] | _ :: _ => [64] end ++ auth_rest h pt p q f)
  = POk (auth_url sch (match uenc x with [] => UNone | _ :: _ => UUser (uenc x) end) h pt p q f).
Proof.
  intros K' Hc Hne Hx Hpl. destruct x as [|c r].
  - change (uenc []) with (@nil N) in *. cbn [app]. unfold s_css. rewrite <- app_assoc. cbn [app].
    exact (nouser_parse st sch h pt p q f K' Hc Hne).
  - destruct (uenc (c :: r)) as [|e E'] eqn:EE; [apply uenc_nil_inv in EE; discriminate|]. rewrite <- EE in *.
    unfold s_css. rewrite <- !app_assoc. cbn [app].
    apply (user_parse st sch (UUser (uenc (c :: r))) h pt p q f (c :: r) None K' Hc Hne);
      [cbn [ui_text pw_text app]; reflexivity | reflexivity | exact Hx | exact Hpl | discriminate].
Qed.

(* WHOLE-URL agreement for set_username (argument free of TAB/LF/CR, ':', '@' and the authority delimiters) *)
Theorem splice_username_auth_parse st sch ui h pt p q f x u' : auth_ok st sch ui h pt p q f -> auth_cls st p ->
  usv_list x -> forallb (fun c => plainc (st_is_special st) c && negb (c =? 58)) x = true ->
  set_username dbg (auth_url sch ui h pt p q f) x = Some (u', SOk) -> h <> HDomain [] -> nlen (ser u') <= U32_MAX_P ->
  parse_url dbg hp hpo hd None None (splice_username (auth_url sch ui h pt p q f) x) = POk u'.
Proof.
  intros K Hc Hx Hpl E Hne Hb. pose proof (auth_cls_nf st p Hc) as Hnf.
  rewrite (set_username_auth st sch ui h pt p q f x K Hnf Hne Hx) in E. inversion E; subst u'. clear E.
  cbn [ser C02_Auth.auth_url] in Hb.
  pose proof (ak_ui _ _ _ _ _ _ _ _ _ _ _ K) as Kui.
  pose proof (ui_set_user_ok ui (uenc x) Kui (uenc_clean x Hx)) as Kui'.
  pose proof (auth_ok_ui st sch ui h pt p q f _ K Hne Kui' Hb) as K'.
  destruct (hd_head st h (ak_h _ _ _ _ _ _ _ _ _ _ _ K) Hne) as (c0 & r0 & Ehd & Hc58 & Hc64).
  unfold splice_username. rewrite auth_url_cr.
  change (scheme_end (cr_url (sch ++ s_css) (ui_user ui) (ui_tail ui) (hd h ++ port_text pt ++ pth_text p) (nlen sch) (nlen (hd h))
            (nlen (hd h ++ port_text pt)) (hi_of_host h) pt q f)) with (nlen sch).
  change (username_end (cr_url (sch ++ s_css) (ui_user ui) (ui_tail ui) (hd h ++ port_text pt ++ pth_text p) (nlen sch) (nlen (hd h))
            (nlen (hd h ++ port_text pt)) (hi_of_host h) pt q f)) with (nlen ((sch ++ s_css) ++ ui_user ui)).
  change (host_start (cr_url (sch ++ s_css) (ui_user ui) (ui_tail ui) (hd h ++ port_text pt ++ pth_text p) (nlen sch) (nlen (hd h))
            (nlen (hd h ++ port_text pt)) (hi_of_host h) pt q f)) with (nlen (((sch ++ s_css) ++ ui_user ui) ++ ui_tail ui)).
  replace (nlen sch + 3) with (nlen (sch ++ s_css)) by (clear; unfold s_css; llia).
  destruct (cr_slices (sch ++ s_css) (ui_user ui) (ui_tail ui) (hd h ++ port_text pt ++ pth_text p) (nlen sch) (nlen (hd h))
            (nlen (hd h ++ port_text pt)) (hi_of_host h) pt q f) as (_ & C2 & C3 & C4 & C5). rewrite C2, C3, C4, C5.
  assert ((hd h ++ port_text pt ++ pth_text p) ++ qf_text q f = auth_rest h pt p q f) as ER by (unfold auth_rest; rewrite <- !app_assoc; reflexivity).
  rewrite ER.
  destruct ui as [|u|u p0]; cbn [ui_tail ui_set_user app head_is] in *.
  - assert (head_is (auth_rest h pt p q f) 58 = false) as -> by (unfold auth_rest; rewrite Ehd; cbn [app head_is]; lia).
    exact (nopw_parse st sch h pt p q f x K' Hc Hne Hx Hpl).
  - replace (64 =? 58) with false by reflexivity. exact (nopw_parse st sch h pt p q f x K' Hc Hne Hx Hpl).
  - replace (58 =? 58) with true by reflexivity. destruct Kui as (_ & Hp0 & Hp0n).
    replace ((sch ++ s_css) ++ x ++ 58 :: (p0 ++ [64]) ++ auth_rest h pt p q f)
      with (sch ++ 58 :: 47 :: 47 :: x ++ pw_text (Some p0) ++ 64 :: auth_rest h pt p q f)
      by (unfold s_css; cbn [pw_text]; rewrite <- ?app_assoc; cbn [app]; rewrite <- ?app_assoc; reflexivity).
    apply (user_parse st sch (UPw (uenc x) p0) h pt p q f x (Some p0) K' Hc Hne);
      [cbn [ui_text pw_text app]; rewrite <- ?app_assoc; reflexivity | reflexivity | exact Hx | exact Hpl | split; assumption].
Qed.

(* every canonical record *)
Lemma sp_of_auth st sch ui h pt p q f : auth_ok st sch ui h pt p q f -> sp_of (auth_url sch ui h pt p q f) = st_is_special st.
Proof.
  intros K. unfold sp_of. cbn [scheme_end ser C02_Auth.auth_url]. unfold C02_Auth.auth_ser, C02_Auth.auth_pre.
  rewrite <- app_assoc. rewrite (front_sch hd). rewrite (ak_st _ _ _ _ _ _ _ _ _ _ _ K). reflexivity.
Qed.

Lemma cred_ok_host st sch ui h pt p q f : auth_ok st sch ui h pt p q f -> st_is_file st = false ->
  cannot_have_credentials_or_port (auth_url sch ui h pt p q f) = Some false -> h <> HDomain [].
Proof.
  intros K Hnf Hc E. subst h. rewrite (auth_cannot_port hp hpo hd st sch ui _ pt p q f K Hnf) in Hc. discriminate Hc.
Qed.

Lemma cred_cases st sch ui h pt p q f : auth_ok st sch ui h pt p q f -> st_is_file st = false ->
  (h = HDomain [] /\ cannot_have_credentials_or_port (auth_url sch ui h pt p q f) = Some true)
  \/ (h <> HDomain [] /\ cannot_have_credentials_or_port (auth_url sch ui h pt p q f) = Some false).
Proof.
  intros K Hnf. rewrite (auth_cannot_port hp hpo hd st sch ui h pt p q f K Hnf).
  destruct h as [[|d0 d]|a|pcs]; [left; split; reflexivity | right | right | right]; split; try reflexivity; discriminate.
Qed.

Theorem splice_agreement_set_password u y u' : Canon hp hpo hd u -> usv_list y -> y <> [] ->
  forallb (plainc (sp_of u)) y = true ->
  set_password dbg u (Some y) = Some (u', SOk) -> nlen (ser u') <= U32_MAX_P ->
  parse_url dbg hp hpo hd None None (splice_password u y) = POk u'.
Proof.
  intros C Hy Hyn. destruct C as [sch P q f K | sch segs last q f K | sch ui h pt p q f K | sch ui h pt p q f K Kp].
  - intros _. unfold set_password, cannot_have_credentials_or_port, has_host. cbn [opaque_url hosti negb bindo]. discriminate.
  - intros _. unfold set_password, cannot_have_credentials_or_port, has_host. cbn [noauth_url hosti negb bindo]. discriminate.
  - rewrite (sp_of_auth _ _ _ _ _ _ _ _ K). intros Hpl E Hb.
    destruct (cred_cases _ _ _ _ _ _ _ _ K eq_refl) as [[_ Hc]|[Hne _]].
    { unfold set_password in E. rewrite Hc in E. discriminate E. }
    apply (splice_password_auth_parse STNotSpecial sch ui h pt p q f y u' K); try assumption.
    left. split; [reflexivity | exact (ak_p _ _ _ _ _ _ _ _ _ _ _ K)].
  - rewrite (sp_of_auth _ _ _ _ _ _ _ _ K). intros Hpl E Hb.
    destruct (cred_cases _ _ _ _ _ _ _ _ K eq_refl) as [[_ Hc]|[Hne _]].
    { unfold set_password in E. rewrite Hc in E. discriminate E. }
    apply (splice_password_auth_parse STSpecialNotFile sch ui h pt p q f y u' K); try assumption.
    right. split; [reflexivity | exact Kp].
Qed.

Theorem splice_agreement_set_username u x u' : Canon hp hpo hd u -> usv_list x ->
  forallb (fun c => plainc (sp_of u) c && negb (c =? 58)) x = true ->
  set_username dbg u x = Some (u', SOk) -> nlen (ser u') <= U32_MAX_P ->
  parse_url dbg hp hpo hd None None (splice_username u x) = POk u'.
Proof.
  intros C Hx. destruct C as [sch P q f K | sch segs last q f K | sch ui h pt p q f K | sch ui h pt p q f K Kp].
  - intros _. unfold set_username, cannot_have_credentials_or_port, has_host. cbn [opaque_url hosti negb bindo]. discriminate.
  - intros _. unfold set_username, cannot_have_credentials_or_port, has_host. cbn [noauth_url hosti negb bindo]. discriminate.
  - rewrite (sp_of_auth _ _ _ _ _ _ _ _ K). intros Hpl E Hb.
    destruct (cred_cases _ _ _ _ _ _ _ _ K eq_refl) as [[_ Hc]|[Hne _]].
    { unfold set_username in E. rewrite Hc in E. discriminate E. }
    apply (splice_username_auth_parse STNotSpecial sch ui h pt p q f x u' K); try assumption.
    left. split; [reflexivity | exact (ak_p _ _ _ _ _ _ _ _ _ _ _ K)].
  - rewrite (sp_of_auth _ _ _ _ _ _ _ _ K). intros Hpl E Hb.
    destruct (cred_cases _ _ _ _ _ _ _ _ K eq_refl) as [[_ Hc]|[Hne _]].
    { unfold set_username in E. rewrite Hc in E. discriminate E. }
    apply (splice_username_auth_parse STSpecialNotFile sch ui h pt p q f x u' K); try assumption.
    right. split; [reflexivity | exact Kp].
Qed.

End CredAuth.
