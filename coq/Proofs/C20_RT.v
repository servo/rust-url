(* Proofs/C20_RT.v - from_file_path / from_directory_path build the record `file_rec`, to_file_path
   reads it back; round trip up to std::path normalisation; relative paths; host condition. *)
From RU Require Import Base.Prelude Model.AsciiSet Gen.Tables Model.PercentEncoding
  Model.HostT Model.UrlRecord Model.Parser Model.FilePath
  Proofs.C14_Enc Proofs.C14_Views Proofs.ListN Proofs.C20_Path.

(* facts about the regenerated sets of Gen/Tables.v, by computation *)
Lemma sps_contains_pct : aset_contains T_SPECIAL_PATH_SEGMENT 37 = true.
Proof. vm_compute. reflexivity. Qed.

Lemma sps_encodes_slash : should_encode T_SPECIAL_PATH_SEGMENT 47 = true.
Proof. vm_compute. reflexivity. Qed.

(* the encoding of one path component *)
Definition enc (c : list N) : list N := encode T_SPECIAL_PATH_SEGMENT c.

Lemma hex_upper_not_slash d : d < 16 -> hex_upper d <> 47.
Proof. unfold hex_upper. intros H. destruct (d <? 10); lia. Qed.

Lemma enc_cons b c : enc (b :: c) = enc1 T_SPECIAL_PATH_SEGMENT b ++ enc c.
Proof. unfold enc. apply encode_cons. Qed.

Lemma enc_Forall (Q : N -> Prop) c : bytes c ->
  Q 37 -> (forall d, d < 16 -> Q (hex_upper d)) ->
  (forall b, should_encode T_SPECIAL_PATH_SEGMENT b = false -> Q b) ->
  Forall Q (enc c).
Proof.
  intros Hb H37 Hhex Hkeep. induction c as [|b c IH]; [constructor|].
  inversion Hb as [|? ? Hb1 Hb2]; subst. rewrite enc_cons. apply Forall_app. split; [|exact (IH Hb2)].
  unfold enc1. destruct (should_encode T_SPECIAL_PATH_SEGMENT b) eqn:E.
  - unfold enc_byte_spec, is_byte in *.
    constructor; [exact H37|]. constructor; [apply Hhex; lia|]. constructor; [apply Hhex; lia|]. constructor.
  - constructor; [apply Hkeep; exact E | constructor].
Qed.

Lemma enc_no_slash c : bytes c -> ~ In 47 (enc c).
Proof.
  intros Hb Hi. assert (H : Forall (fun x => x <> 47) (enc c)).
  { apply enc_Forall; [exact Hb | discriminate | exact hex_upper_not_slash|].
    intros b Hk ->. rewrite sps_encodes_slash in Hk. discriminate Hk. }
  rewrite Forall_forall in H. exact (H 47 Hi eq_refl).
Qed.

Lemma enc_nonempty c : c <> [] -> enc c <> [].
Proof.
  intros Hc He. pose proof (encode_len_ge T_SPECIAL_PATH_SEGMENT c) as Hl.
  unfold enc in He. rewrite He in Hl. destruct c; [congruence | cbn [length] in Hl; lia].
Qed.

Lemma decode_enc c : bytes c -> decode (enc c) = c.
Proof. intros H. unfold enc. apply decode_encode; [exact sps_contains_pct | exact H]. Qed.

Lemma map_decode_enc ks : Forall bytes ks -> map decode (map enc ks) = ks.
Proof.
  induction ks as [|k ks IH]; intros H; [reflexivity|].
  inversion H; subst. cbn [map]. rewrite decode_enc by assumption. f_equal. auto.
Qed.

Lemma Forall_enc_no_slash ks : Forall bytes ks -> Forall (fun k => ~ In 47 k) (map enc ks).
Proof.
  induction ks as [|k ks IH]; intros H; [constructor|].
  inversion H; subst. cbn [map]. constructor; [apply enc_no_slash; assumption | auto].
Qed.

(* the record from_file_path builds *)
Definition file_rec (url_path : list N) : url :=
  mkUrl (s_file_css ++ url_path) 4 7 7 7 HI_None None 7 None None.

(* the URL path for the kept pieces ks of the file path: "/" for the root, else "/e1/e2/.../en" *)
Definition url_path_of (ks : list (list N)) : list N :=
  match ks with [] => [47] | _ => join_slash (map enc ks) end.
(* its segments *)
Definition segments_of (ks : list (list N)) : list (list N) :=
  match ks with [] => [[]] | _ => map enc ks end.

Lemma url_path_segments ks : url_path_of ks = join_slash (segments_of ks).
Proof. destruct ks; reflexivity. Qed.

Lemma push_path_components_spec ks : Forall bytes ks -> forall ser,
  push_path_components ser (map component_of_piece ks) = ser ++ join_slash (map enc ks).
Proof.
  induction ks as [|k ks IH]; intros Hb ser.
  - cbn [map push_path_components join_slash flat_map]. rewrite app_nil_r. reflexivity.
  - inversion Hb as [|? ? Hk Hks]; subst. cbn [map push_path_components].
    rewrite component_bytes_of_piece, pe_display_is_encode by exact Hk.
    rewrite IH by exact Hks. rewrite join_slash_cons. fold (enc k).
    rewrite <- !app_assoc. reflexivity.
Qed.

Theorem from_file_path_spec p : bytes p -> path_is_absolute p = true ->
  from_file_path p = FOk (file_rec (url_path_of (kept p))).
Proof.
  intros Hb Ha. unfold from_file_path, path_to_file_url_segments. rewrite Ha. cbn [negb].
  change (to_u32 (nlen s_file_css)) with (@POk N 7).
  rewrite components_abs by exact Ha. cbn [tl].
  pose proof (kept_bytes p Hb) as Hkb.
  destruct (kept p) as [|k ks] eqn:Ek.
  - reflexivity.
  - rewrite push_path_components_spec by exact Hkb. reflexivity.
Qed.

Theorem from_file_path_rel p : path_is_absolute p = false ->
  from_file_path p = FErr /\ from_directory_path p = FErr.
Proof.
  intros Ha. assert (H : from_file_path p = FErr).
  { unfold from_file_path, path_to_file_url_segments. rewrite Ha. reflexivity. }
  split; [exact H|]. unfold from_directory_path. rewrite H. reflexivity.
Qed.

Lemma push_decoded_spec segs : forall acc,
  push_decoded_segments acc segs = acc ++ join_slash (map decode segs).
Proof.
  induction segs as [|s segs IH]; intros acc.
  - cbn [push_decoded_segments map join_slash flat_map]. rewrite app_nil_r. reflexivity.
  - cbn [push_decoded_segments map]. rewrite IH, join_slash_cons. rewrite <- !app_assoc. reflexivity.
Qed.

Lemma hack_cases b : exists t, (t = [] \/ t = [47]) /\ drive_letter_hack b = b ++ t.
Proof.
  unfold drive_letter_hack.
  match goal with |- context [if ?c then _ else _] => destruct c end.
  - exists [47]. auto.
  - exists []. rewrite app_nil_r. auto.
Qed.

Lemma nlen_file_css : nlen s_file_css = 7.
Proof. reflexivity. Qed.

Lemma path_file_rec P : path (file_rec P) = Some P.
Proof.
  unfold path, file_rec. cbn [query_start fragment_start path_start].
  unfold u_slice_from, slice_from_o. cbn [ser].
  rewrite nlen_app, nlen_file_css.
  replace (7 <=? 7 + nlen P) with true by lia. reflexivity.
Qed.

Lemma scheme_file_rec P : scheme (file_rec P) = Some s_file.
Proof.
  unfold scheme, file_rec, u_slice_to, slice_to_o. cbn [ser scheme_end].
  rewrite nlen_app, nlen_file_css.
  replace (4 <=? 7 + nlen P) with true by lia. reflexivity.
Qed.

Lemma path_segments_file_rec segs : segs <> [] -> Forall (fun k => ~ In 47 k) segs ->
  path_segments (file_rec (join_slash segs)) = Some (Some segs).
Proof.
  intros Hne Hns. unfold path_segments. rewrite path_file_rec. cbn [bindo].
  destruct segs as [|s segs]; [congruence|].
  rewrite join_slash_cons. rewrite split_join_slash_tl by exact Hns. reflexivity.
Qed.

Theorem to_file_path_no_segments dbg u : path_segments u = Some None -> to_file_path dbg u = FErr.
Proof. intros H. unfold to_file_path. rewrite H. reflexivity. Qed.

Theorem to_file_path_bad_host dbg u segs h : path_segments u = Some (Some segs) ->
  host_of u = Some (Some h) -> h <> HDomain s_localhost -> to_file_path dbg u = FErr.
Proof.
  intros Hs Hh Hne. unfold to_file_path. rewrite Hs, Hh.
  destruct h as [d|a|pc]; try reflexivity.
  destruct (list_eqb d s_localhost) eqn:E; [|reflexivity].
  apply list_eqb_spec in E. subst d. congruence.
Qed.

(* exactly when it succeeds, and with what *)
Theorem to_file_path_ok_inv dbg u q : to_file_path dbg u = FOk q ->
  exists segs, path_segments u = Some (Some segs)
    /\ (host_of u = Some None \/ host_of u = Some (Some (HDomain s_localhost)))
    /\ q = drive_letter_hack (join_slash (map decode segs)).
Proof.
  unfold to_file_path. destruct (path_segments u) as [[segs|]|]; try discriminate.
  destruct (host_of u) as [h|] eqn:Eh; try discriminate.
  intros H. exists segs. split; [reflexivity|].
  assert (Hh : h = None \/ h = Some (HDomain s_localhost)).
  { destruct h as [[d|a|pc]|]; cbn [negb] in H; try discriminate H; [|left; reflexivity].
    destruct (list_eqb d s_localhost) eqn:E; [|discriminate H].
    apply list_eqb_spec in E. subst d. right. reflexivity. }
  split; [destruct Hh as [-> | ->]; auto|].
  assert (H2 : file_url_segments_to_pathbuf dbg None segs = FOk q).
  { destruct Hh as [-> | ->]; cbn [negb] in H.
    - destruct (scheme u); [exact H | discriminate H].
    - change (list_eqb s_localhost s_localhost) with true in H. cbn [negb] in H.
      destruct (scheme u); [exact H | discriminate H]. }
  unfold file_url_segments_to_pathbuf in H2. rewrite push_decoded_spec in H2. cbn [app] in H2.
  destruct (dbg && negb (path_is_absolute (drive_letter_hack (join_slash (map decode segs))))); [discriminate H2|].
  inversion H2. reflexivity.
Qed.

(* on records whose slices are in range (all parse results) the converse holds too *)
Theorem to_file_path_ok dbg u segs : path_segments u = Some (Some segs) ->
  (host_of u = Some None \/ host_of u = Some (Some (HDomain s_localhost))) -> scheme u <> None ->
  to_file_path dbg u = FOk (drive_letter_hack (join_slash (map decode segs))).
Proof.
  intros Hs Hh Hsc. unfold to_file_path. rewrite Hs.
  assert (Hseg : segs <> []).
  { unfold path_segments in Hs. destruct (path u) as [pp|]; [|discriminate Hs]. cbn [bindo] in Hs.
    destruct pp as [|c r]; [discriminate Hs|].
    assert (Hx : exists r', Some (Some segs) = Some (Some (split_on 47 r'))).
    { destruct c as [|pc]; [discriminate Hs|].
      do 6 (destruct pc as [pc|pc|]; try discriminate Hs). exists r. symmetry. exact Hs. }
    destruct Hx as [r' Hr']. inversion Hr' as [Hseg]. unfold split_on.
    clear. generalize (@nil N). induction r' as [|x r' IH]; intros acc; cbn [split_on_aux]; [discriminate|].
    destruct (x =? 47); [discriminate | apply IH]. }
  assert (Hfin : file_url_segments_to_pathbuf dbg None segs = FOk (drive_letter_hack (join_slash (map decode segs)))).
  { unfold file_url_segments_to_pathbuf. rewrite push_decoded_spec. cbn [app].
    destruct (hack_cases (join_slash (map decode segs))) as [t [Ht Hh2]]. rewrite Hh2.
    destruct segs as [|s segs]; [congruence|]. cbn [map]. rewrite join_slash_cons.
    cbn [app path_is_absolute negb]. rewrite andb_false_r. reflexivity. }
  destruct Hh as [-> | ->]; cbn [negb].
  - destruct (scheme u); [exact Hfin | congruence].
  - change (list_eqb s_localhost s_localhost) with true. cbn [negb].
    destruct (scheme u); [exact Hfin | congruence].
Qed.

(* in particular on the records from_file_path builds *)
Theorem to_file_path_file_rec dbg segs : segs <> [] -> Forall (fun k => ~ In 47 k) segs ->
  to_file_path dbg (file_rec (join_slash segs)) = FOk (drive_letter_hack (join_slash (map decode segs))).
Proof.
  intros Hne Hns. apply to_file_path_ok; [apply path_segments_file_rec; assumption | left; reflexivity|].
  rewrite scheme_file_rec. discriminate.
Qed.

Lemma components_eqb_refl cs : components_eqb cs cs = true.
Proof.
  induction cs as [|c cs IH]; [reflexivity|]. cbn [components_eqb]. rewrite IH, andb_true_r.
  destruct c; try reflexivity. cbn [component_eqb]. apply list_eqb_refl.
Qed.

Theorem file_path_round_trip dbg p : bytes p -> path_is_absolute p = true ->
  exists u q,
    from_file_path p = FOk u
    /\ u = file_rec (url_path_of (kept p))
    /\ path_segments u = Some (Some (segments_of (kept p)))
    /\ to_file_path dbg u = FOk q
    /\ path_components q = path_components p
    /\ path_eq q p = true.
Proof.
  intros Hb Ha.
  pose proof (kept_bytes p Hb) as Hkb. pose proof (kept_nosep p) as Hkn. pose proof (kept_keep p) as Hkk.
  assert (Hsn : segments_of (kept p) <> []) by (destruct (kept p); discriminate).
  assert (Hss : Forall (fun k => ~ In 47 k) (segments_of (kept p))).
  { destruct (kept p) as [|k ks] eqn:Ek.
    - constructor; [intros [] | constructor].
    - apply Forall_enc_no_slash. exact Hkb. }
  exists (file_rec (url_path_of (kept p))).
  exists (drive_letter_hack (join_slash (map decode (segments_of (kept p))))).
  assert (Hc : path_components (drive_letter_hack (join_slash (map decode (segments_of (kept p)))))
               = path_components p).
  { destruct (hack_cases (join_slash (map decode (segments_of (kept p))))) as [t [Ht Hh]]. rewrite Hh.
    rewrite (components_abs p Ha).
    destruct (kept p) as [|k ks] eqn:Ek.
    - cbn [segments_of map]. change (join_slash [decode []]) with [47]. apply components_root. exact Ht.
    - cbn [segments_of]. rewrite map_decode_enc by exact Hkb.
      apply components_join_slash; [exact Ht | discriminate | exact Hkn | exact Hkk]. }
  split; [apply from_file_path_spec; assumption|].
  split; [reflexivity|].
  rewrite url_path_segments.
  split; [apply path_segments_file_rec; assumption|].
  split; [apply to_file_path_file_rec; assumption|].
  split; [exact Hc|].
  unfold path_eq. rewrite Hc. apply components_eqb_refl.
Qed.

Lemma ends_with_snoc b l : ends_with_byte b (l ++ [b]) = true.
Proof. unfold ends_with_byte. rewrite rev_app_distr. cbn [rev app]. apply N.eqb_refl. Qed.

Theorem directory_trailing_slash p u : from_directory_path p = FOk u -> ends_with_byte 47 (ser u) = true.
Proof.
  unfold from_directory_path. destruct (from_file_path p) as [v| |]; try discriminate.
  intros H. inversion H as [Hu]. clear H.
  destruct (ends_with_byte 47 (ser v)) eqn:E; [exact E|].
  cbn [set_ser ser]. apply ends_with_snoc.
Qed.

Lemma ends_with_app_no b x l : l <> [] -> ~ In b l -> ends_with_byte b (x ++ l) = false.
Proof.
  intros Hne Hni. unfold ends_with_byte. rewrite rev_app_distr.
  destruct (rev l) as [|y r] eqn:E.
  - exfalso. apply Hne. rewrite <- (rev_involutive l), E. reflexivity.
  - cbn [app]. assert (Hy : In y l) by (apply in_rev; rewrite E; left; reflexivity).
    destruct (y =? b) eqn:Eb; [|reflexivity]. exfalso. apply Hni. replace b with y by lia. exact Hy.
Qed.

Lemma join_slash_last ks : ks <> [] -> exists Y e, join_slash ks = Y ++ 47 :: e /\ In e ks.
Proof.
  intros Hne. destruct (exists_last Hne) as [ks' [e He]]. subst ks.
  exists (join_slash ks'), e. split; [apply join_slash_snoc | apply in_or_app; right; left; reflexivity].
Qed.

(* "file://" ++ "/e1/.../en" ++ "/"   (just "file:///" for the root) *)
Definition dir_path_of (ks : list (list N)) : list N := join_slash (map enc ks) ++ [47].

Theorem from_directory_path_spec p : bytes p -> path_is_absolute p = true ->
  from_directory_path p = FOk (file_rec (dir_path_of (kept p))).
Proof.
  intros Hb Ha. unfold from_directory_path. rewrite from_file_path_spec by assumption.
  pose proof (kept_bytes p Hb) as Hkb. pose proof (kept_keep p) as Hkk.
  destruct (kept p) as [|k ks] eqn:Ek.
  - reflexivity.
  - assert (He : ends_with_byte 47 (ser (file_rec (url_path_of (k :: ks)))) = false).
    { cbn [url_path_of file_rec ser].
      destruct (join_slash_last (map enc (k :: ks))) as [Y [e [HY He]]]; [discriminate|].
      rewrite HY. apply in_map_iff in He. destruct He as [k0 [<- Hk0]].
      rewrite Forall_forall in Hkb, Hkk.
      replace (s_file_css ++ Y ++ 47 :: enc k0) with ((s_file_css ++ Y ++ [47]) ++ enc k0)
        by (rewrite <- !app_assoc; reflexivity).
      apply ends_with_app_no.
      - apply enc_nonempty. apply keep_piece_nonempty. apply Hkk. exact Hk0.
      - apply enc_no_slash. apply Hkb. exact Hk0. }
    rewrite He. unfold set_ser, file_rec, dir_path_of, url_path_of. cbn [ser scheme_end username_end host_start host_end hosti port path_start query_start fragment_start].
    rewrite <- app_assoc. reflexivity.
Qed.
