(* Proofs/C07_SpecRun.v - the specification side of the C07 equivalence: what the basic URL parser of
   Spec/Whatwg.v computes when it is run WITH a state override from the fragment, query and port
   states (the hash, search and port setters), on any text, and from there the closed forms of the
   hash / search / username / password / port attribute setters of the Standard. *)
From RU Require Import Base.Prelude Base.Utf8 Spec.Whatwg Spec.WhatwgFuel Proofs.C01_EqRun.

Section OvRuns.
Variable hp : bool -> list N -> option spec_host.
Variable input : list N.
Variable ov : pstate.

Notation runO := (run hp input None (Some ov)).
Notation stepO := (step hp input None (Some ov)).
Notation LEN := (Z.of_nat (length input)).

Lemma step_at st pre t buf a b pw u : input = pre ++ t ->
  stepO (at_pos st pre buf a b pw u)
  = let m := at_pos st pre buf a b pw u in
    let c := hd_error t in let rem := tl t in
    match st with
    | StSchemeStart => st_scheme_start (Some ov) m c
    | StScheme => st_scheme None (Some ov) m c rem
    | StNoScheme => st_no_scheme None m c
    | StSpecialRelativeOrAuthority => st_special_relative_or_authority m c rem
    | StPathOrAuthority => st_path_or_authority m c
    | StRelative => st_relative None m c
    | StRelativeSlash => st_relative_slash None m c
    | StSpecialAuthoritySlashes => st_special_authority_slashes m c rem
    | StSpecialAuthorityIgnoreSlashes => st_special_authority_ignore_slashes m c
    | StAuthority => st_authority m c
    | StHost | StHostname => st_host hp (Some ov) m c
    | StPort => st_port (Some ov) m c
    | StFile => st_file None m c rem
    | StFileSlash => st_file_slash None m c rem
    | StFileHost => st_file_host hp (Some ov) m c
    | StPathStart => st_path_start (Some ov) m c
    | StPath => st_path (Some ov) m c
    | StOpaquePath => st_opaque_path m c
    | StQuery => st_query (Some ov) m c
    | StFragment => st_fragment m c
    end.
Proof.
  intros Hin. unfold step, at_pos. cbn [m_ptr m_state]. rewrite (substring_at hp input pre t Hin). reflexivity.
Qed.

Lemma inc_at st pre (c : N) buf a b pw u :
  inc_ptr (mkM st (Z.of_nat (length pre)) buf a b pw u) = at_pos st (pre ++ [c]) buf a b pw u.
Proof. unfold inc_ptr, set_ptr, at_pos. cbn [m_ptr m_state m_buf m_at m_br m_pw m_url]. rewrite (len_snoc hp). reflexivity. Qed.

(* fragment state *)
Theorem run_fragment_ov : forall t pre fuel buf a b pw u f0,
  input = pre ++ t -> su_fragment u = Some f0 -> (length t < fuel)%nat ->
  runO fuel (at_pos StFragment pre buf a b pw u) = BDone (set_fragment u (Some (f0 ++ upe in_fragment_set t))).
Proof.
  induction t as [|c r IH]; intros pre fuel buf a b pw u f0 Hin Hf Hfuel;
    (destruct fuel as [|fuel]; [cbn [length] in Hfuel; lia|]); cbn [run].
  - rewrite (step_at _ _ _ _ _ _ _ _ Hin). cbn zeta. cbn [hd_error]. unfold st_fragment.
    cbn [m_ptr at_pos]. rewrite (len_split hp input pre [] Hin). cbn [length].
    replace (Z.of_nat (length pre) + Z.of_nat 0 <=? Z.of_nat (length pre))%Z with true by lia.
    cbn [m_url upe utf8_percent_encode flat_map]. rewrite app_nil_r, (set_fragment_same _ _ Hf). reflexivity.
  - rewrite (step_at _ _ _ _ _ _ _ _ Hin). cbn zeta. cbn [hd_error]. unfold st_fragment.
    cbn [m_url at_pos]. rewrite Hf. unfold set_url. cbn [m_state m_ptr m_buf m_at m_br m_pw m_url at_pos].
    rewrite (len_split hp input pre (c :: r) Hin). cbn [length].
    replace (Z.of_nat (length pre) + Z.of_nat (S (length r)) <=? Z.of_nat (length pre))%Z with false by lia.
    rewrite (inc_at StFragment pre c).
    rewrite (IH (pre ++ [c]) fuel buf a b pw (set_fragment u (Some (f0 ++ utf8_percent_encode_cp in_fragment_set c)))
                (f0 ++ utf8_percent_encode_cp in_fragment_set c)
                (snoc_split input pre c r Hin) eq_refl) by (cbn [length] in Hfuel; lia).
    rewrite upe_cons, app_assoc. destruct u; reflexivity.
Qed.

(* query state: with a state override '#' is an ordinary code point *)
Lemma set_query_twice u x y : set_query (set_query u x) y = set_query u y.
Proof. destruct u; reflexivity. Qed.

Theorem run_query_ov : forall t pre fuel buf a b pw u q0,
  input = pre ++ t -> su_query u = Some q0 -> (length t < fuel)%nat ->
  runO fuel (at_pos StQuery pre buf a b pw u) = BDone (set_query u (Some (q0 ++ upe (qset_of u) (buf ++ t)))).
Proof.
  induction t as [|c r IH]; intros pre fuel buf a b pw u q0 Hin Hq Hfuel;
    (destruct fuel as [|fuel]; [cbn [length] in Hfuel; lia|]); cbn [run].
  - rewrite (step_at _ _ _ _ _ _ _ _ Hin). cbn zeta. cbn [hd_error]. unfold st_query.
    cbn [has_ov opt_is_some negb andb orb is_eof cis m_url m_buf at_pos]. rewrite Hq.
    unfold set_buf, set_url. cbn [m_state m_ptr m_buf m_at m_br m_pw m_url at_pos].
    rewrite (len_split hp input pre [] Hin). cbn [length].
    replace (Z.of_nat (length pre) + Z.of_nat 0 <=? Z.of_nat (length pre))%Z with true by lia.
    rewrite app_nil_r. reflexivity.
  - rewrite (step_at _ _ _ _ _ _ _ _ Hin). cbn zeta. cbn [hd_error]. unfold st_query.
    cbn [has_ov opt_is_some negb andb orb is_eof cis m_url m_buf at_pos].
    unfold push_buf, set_buf. cbn [m_state m_ptr m_buf m_at m_br m_pw m_url at_pos].
    rewrite (len_split hp input pre (c :: r) Hin). cbn [length].
    replace (Z.of_nat (length pre) + Z.of_nat (S (length r)) <=? Z.of_nat (length pre))%Z with false by lia.
    rewrite (inc_at StQuery pre c).
    rewrite (IH (pre ++ [c]) fuel (buf ++ [c]) a b pw u q0 (snoc_split input pre c r Hin) Hq)
      by (cbn [length] in Hfuel; lia).
    rewrite <- app_assoc. reflexivity.
Qed.

(* port state with a state override *)
Fixpoint take_digits (t : list N) : list N :=
  match t with
  | c :: r => if is_digit c then c :: take_digits r else []
  | [] => []
  end.

(* the outcome of the port state on a buffer of digits, when a state override is given *)
Definition port_outcome (u : spec_url) (digits : list N) : parse_outcome :=
  match digits with
  | [] => BFailure u
  | _ => let port := decimal_value digits in
         if 65535 <? port then BFailure u
         else BDone (set_port u (if port_is_default (su_scheme u) port then None else Some port))
  end.

Lemma port_stop c buf a b pw u pre t : input = pre ++ t -> hd_error t = c -> cpred is_digit c = false ->
  st_port (Some ov) (at_pos StPort pre buf a b pw u) c =
  match port_outcome u buf with BDone x => SReturn x | BFailure x => SFailure x | BOutOfFuel => SFailure u end.
Proof.
  intros Hin Hc Hd. unfold st_port. rewrite Hd. cbn [has_ov opt_is_some]. rewrite orb_true_r.
  cbn [m_buf m_url at_pos]. unfold port_outcome.
  destruct buf as [|d ds]; [reflexivity|]. cbn [list_eqb negb].
  destruct (65535 <? decimal_value (d :: ds)); reflexivity.
Qed.

Theorem run_port_ov : forall t pre fuel buf a b pw u,
  input = pre ++ t -> (length t < fuel)%nat ->
  runO fuel (at_pos StPort pre buf a b pw u) = port_outcome u (buf ++ take_digits t).
Proof.
  induction t as [|c r IH]; intros pre fuel buf a b pw u Hin Hfuel;
    (destruct fuel as [|fuel]; [cbn [length] in Hfuel; lia|]); cbn [run].
  - rewrite (step_at _ _ _ _ _ _ _ _ Hin). cbn zeta. cbn [hd_error].
    rewrite (port_stop None buf a b pw u pre [] Hin eq_refl eq_refl). cbn [take_digits]. rewrite app_nil_r.
    unfold port_outcome. destruct buf as [|d ds]; [reflexivity|].
    destruct (65535 <? decimal_value (d :: ds)); reflexivity.
  - rewrite (step_at _ _ _ _ _ _ _ _ Hin). cbn zeta. cbn [hd_error take_digits].
    destruct (is_digit c) eqn:Ed.
    + unfold st_port. cbn [cpred]. rewrite Ed.
      unfold push_buf, set_buf. cbn [m_state m_ptr m_buf m_at m_br m_pw m_url at_pos].
      rewrite (len_split hp input pre (c :: r) Hin). cbn [length].
      replace (Z.of_nat (length pre) + Z.of_nat (S (length r)) <=? Z.of_nat (length pre))%Z with false by lia.
      rewrite (inc_at StPort pre c).
      rewrite (IH (pre ++ [c]) fuel (buf ++ [c]) a b pw u (snoc_split input pre c r Hin))
        by (cbn [length] in Hfuel; lia).
      rewrite <- app_assoc. reflexivity.
    + rewrite (port_stop (Some c) buf a b pw u pre (c :: r) Hin eq_refl Ed). rewrite app_nil_r.
      unfold port_outcome. destruct buf as [|d ds]; [reflexivity|].
      destruct (65535 <? decimal_value (d :: ds)); reflexivity.
Qed.

End OvRuns.

(* the attribute setters in closed form *)
Definition notnl (v : list N) : list N := filter (fun c => negb (is_ascii_tab_or_newline c)) v.

Lemma fuel_enough (t : list N) : (length t < spec_fuel t)%nat.
Proof. unfold spec_fuel. lia. Qed.

Section Setters.
Variable shp : bool -> list N -> option spec_host.

Lemma set_fragment_twice u x y : set_fragment (set_fragment u x) y = set_fragment u y.
Proof. destruct u; reflexivity. Qed.

Theorem spec_hash_some su x :
  after_override (spec_basic_url_parse_override shp x (set_fragment su (Some [])) StFragment)
  = SetTo (set_fragment su (Some (upe in_fragment_set (notnl x)))).
Proof.
  unfold spec_basic_url_parse_override. fold (notnl x).
  change (mkM StFragment 0%Z [] false false false (set_fragment su (Some [])))
    with (at_pos StFragment [] [] false false false (set_fragment su (Some []))).
  rewrite (run_fragment_ov shp (notnl x) StFragment (notnl x) [] _ [] false false false (set_fragment su (Some [])) [] eq_refl eq_refl (fuel_enough _)).
  cbn [after_override app]. rewrite set_fragment_twice. reflexivity.
Qed.

Theorem spec_search_some su x :
  after_override (spec_basic_url_parse_override shp x (set_query su (Some [])) StQuery)
  = SetTo (set_query su (Some (upe (qset_of su) (notnl x)))).
Proof.
  unfold spec_basic_url_parse_override. fold (notnl x).
  change (mkM StQuery 0%Z [] false false false (set_query su (Some [])))
    with (at_pos StQuery [] [] false false false (set_query su (Some []))).
  rewrite (run_query_ov shp (notnl x) StQuery (notnl x) [] _ [] false false false (set_query su (Some [])) [] eq_refl eq_refl (fuel_enough _)).
  cbn [after_override app]. rewrite set_query_twice.
  replace (qset_of (set_query su (Some []))) with (qset_of su) by (destruct su; reflexivity). reflexivity.
Qed.

Definition outcome_url (r : parse_outcome) (dflt : spec_url) : spec_url :=
  match r with BDone x => x | BFailure x => x | BOutOfFuel => dflt end.

Theorem spec_port_some su v :
  after_override (spec_basic_url_parse_override shp v su StPort)
  = SetTo (outcome_url (port_outcome su (take_digits (notnl v))) su).
Proof.
  unfold spec_basic_url_parse_override. fold (notnl v).
  change (mkM StPort 0%Z [] false false false su) with (at_pos StPort [] [] false false false su).
  rewrite (run_port_ov shp (notnl v) StPort (notnl v) [] _ [] false false false su eq_refl (fuel_enough _)).
  cbn [app]. unfold port_outcome. destruct (take_digits (notnl v)) as [|d ds]; [reflexivity|].
  destruct (65535 <? decimal_value (d :: ds)); reflexivity.
Qed.

End Setters.
