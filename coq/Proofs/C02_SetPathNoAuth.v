(* Proofs/C02_SetPathNoAuth.v - L2 for Url::set_path (and url::quirks::set_pathname) on the canonical records WITHOUT
   authority (class (ii): scheme ":" "/" seg "/" ... ), outside F-C03-5 (the record carries the "/." marker) and F-C02-8
   (the new path starts with "//": the code does not insert the marker).
   The setter cuts the serialization at path_start = |scheme ":"|, runs the path start state of the setter context behind
   scheme ":" and re-attaches query and fragment.  By C02_PathSetter the text written is a canonical path or nothing:
     - a canonical path not starting with "//": the canonical record without authority and without marker;
     - nothing (argument empty or made of tab / LF / CR): scheme ":" [?q] [#f], the canonical opaque record with an
       empty path (a:/p -> set_path("") -> a: , which re-parses as a cannot-be-a-base URL with the same offsets).
   Together with C02_SetPath.set_path_Canon (records with authority): set_path_Canon_hier, every Canon record that is
   not cannot-be-a-base. *)
From RU Require Import Base.Prelude Base.Utf8 Base.Utf8Facts Model.AsciiSet Gen.Tables
  Model.PercentEncoding Model.HostT Model.UrlRecord Model.Parser Model.Setters Model.WF
  Proofs.ListN Proofs.C02_Enc Proofs.C02_Parts Proofs.C02_Opaque Proofs.C02_Path Proofs.C02_PathL1 Proofs.C02_Reach
  Proofs.C02_AuthParts Proofs.C02_Auth Proofs.C02_AuthWf Proofs.C02_PathSp Proofs.C02_AuthSp Proofs.C02_AuthMain
  Proofs.C02_SetQF Proofs.C02_Canon Proofs.C02_SetPort Proofs.C02_Hist Proofs.C02_SetHostFrame Proofs.C02_SetHostCanon
  Proofs.C02_SetScheme Proofs.C02_PathSetter Proofs.C02_SetPath Proofs.C02_SetHostNone.
Open Scope N_scope.
Open Scope list_scope.

Section PathCanonN.
Variable dbg : bool.
Variable hp hpo : list N -> result host.
Variable hd : host -> list N.
Hypothesis HRT : HostRT hp hpo hd.

Notation Canon := (Canon hp hpo hd).

Lemma noauth_url_nomarker sch T q f : starts_with s_ss T = false ->
  noauth_url sch T q f = qf_url ((sch ++ [58]) ++ T) (nlen sch) (nlen (sch ++ [58])) (nlen (sch ++ [58])) (nlen (sch ++ [58]))
                                HI_None None (nlen (sch ++ [58])) q f.
Proof.
  intros Hm. rewrite noauth_url_qf. unfold noauth_pre, marker_of. rewrite Hm. cbn [app]. change (nlen (@nil N)) with 0.
  rewrite N.add_0_r. reflexivity.
Qed.

Lemma noauth_to_opaque sch segs last q0 f0 q f : noauth_ok sch segs last q0 f0 ->
  opt_clean T_QUERY q -> opt_clean T_FRAGMENT f -> nlen (opaque_ser sch [] q f) <= U32_MAX_P -> opaque_ok sch [] q f.
Proof.
  intros K Hq Hf Hb. destruct K as [Ksch Kns Ksegs Klast Kq Kf Kb1 Kbq Kbf].
  destruct (qf_bounds _ _ _ _ Hb) as [B1 B2]. constructor; try assumption; try reflexivity.
Qed.

(* a new path behind scheme ":" that does not start with "//": the canonical record without authority, or, when
   nothing was written, the opaque record with an empty path *)
Lemma noauth_path_Canon sch segs last q f p' : noauth_ok sch segs last q f -> pth_ok p' ->
  starts_with s_ss (pth_text p' ++ qf_text q f) = false ->
  nlen ((sch ++ [58]) ++ pth_text p' ++ qf_text q f) <= U32_MAX_P ->
  Canon (qf_url ((sch ++ [58]) ++ pth_text p') (nlen sch) (nlen (sch ++ [58])) (nlen (sch ++ [58])) (nlen (sch ++ [58]))
                HI_None None (nlen (sch ++ [58])) q f).
Proof.
  intros K Hp' Hss Hb. rewrite app_assoc in Hb. destruct p' as [[segs' last']|]; cbn [pth_text] in *.
  - apply starts_with_app_false in Hss. rewrite <- (noauth_url_nomarker sch _ q f Hss). apply Canon_noauth.
    assert (nlen (noauth_pre sch (path_text segs' last') ++ qf_text q f) <= U32_MAX_P) as Hb'
      by (unfold noauth_pre, marker_of; rewrite Hss; exact Hb).
    destruct K as [Ksch Kns Ksegs Klast Kq Kf Kb1 Kbq Kbf]. destruct Hp' as [Hp1 Hp2].
    destruct (qf_bounds _ _ _ _ Hb') as [B1 B2]. constructor; assumption.
  - rewrite app_nil_r in *.
    assert (qf_url (sch ++ [58]) (nlen sch) (nlen (sch ++ [58])) (nlen (sch ++ [58])) (nlen (sch ++ [58])) HI_None None
                   (nlen (sch ++ [58])) q f = opaque_url sch [] q f) as ->
      by (rewrite opaque_url_qf; unfold opaque_pre; rewrite app_nil_r; reflexivity).
    apply Canon_opaque.
    apply (noauth_to_opaque sch segs last q f q f K (nk_q _ _ _ _ _ K) (nk_f _ _ _ _ _ K)).
    unfold opaque_ser, opaque_pre. rewrite app_nil_r. exact Hb.
Qed.

(* the result of the setter, given that its path does not start with "//" *)
Theorem set_path_noauth sch segs last q f x u' : noauth_ok sch segs last q f ->
  starts_with s_ss (path_text segs last) = false -> usv_list x ->
  set_path dbg (noauth_url sch (path_text segs last) q f) x = Some u' -> nlen (ser u') <= U32_MAX_P ->
  (path_start u' =? scheme_end u' + 1) && path_leads_ss u' = false -> Canon u'.
Proof.
  intros K Hm Hx E Hb H8. rewrite (noauth_url_nomarker sch _ q f Hm) in E. unfold path_text in E.
  apply (set_path_hier dbg sch []) in E; [|reflexivity]. destruct E as (s1 & hh & rm & Ep & ->).
  rewrite (nk_ns _ _ _ _ _ K) in Ep.
  destruct (pps_setter_ns dbg _ x true s1 hh rm Hx Ep) as (p' & Hp' & ->).
  cbn [qf_url ser] in Hb. rewrite <- app_assoc in Hb. apply (noauth_path_Canon sch segs last q f p' K Hp'); [|exact Hb].
  unfold path_leads_ss in H8. cbn [qf_url path_start scheme_end ser] in H8.
  rewrite nlen_app in H8. change (nlen [58]) with 1 in H8. rewrite N.eqb_refl in H8. cbn [andb] in H8.
  replace (nlen sch + 1) with (nlen (sch ++ [58])) in H8 by (rewrite nlen_app; reflexivity).
  rewrite <- !app_assoc in H8. rewrite (app_assoc sch [58]), nskipn_app_len in H8. exact H8.
Qed.

Lemma noauth_is_cbb sch segs last q f : starts_with s_ss (path_text segs last) = false ->
  is_cbb (noauth_url sch (path_text segs last) q f) = false.
Proof.
  intros Hm. rewrite (noauth_url_nomarker sch _ q f Hm). unfold is_cbb. cbn [qf_url ser scheme_end].
  replace (nlen sch + 1) with (nlen (sch ++ [58])) by (rewrite nlen_app; reflexivity).
  rewrite <- app_assoc. rewrite nskipn_app_len. reflexivity.
Qed.

(* L2 for set_path on every Canon record that is not cannot-be-a-base: no marker on the record, and on a record
   without authority the new path does not start with "//" *)
Theorem set_path_Canon_core u x u' : Canon u -> cannot_be_a_base u = Some false -> usv_list x ->
  has_marker u = false ->
  (has_authority_b u = false -> is_cbb u = false -> (path_start u' =? scheme_end u' + 1) && path_leads_ss u' = false) ->
  set_path dbg u x = Some u' -> nlen (ser u') <= U32_MAX_P -> Canon u'.
Proof.
  intros C Hcb Hx K1 K8 E Hb.
  destruct (Canon_classes hp hpo hd u C) as [Hc | [Hm | (st & sch & ui & pt & Hh)]]; [congruence | congruence |].
  destruct (hostable_cases hp hpo hd _ _ _ _ _ Hh) as [(segs & last & q & f & K & Hm & -> & -> & -> & ->) | (h & p & q & f & Hnf & K & Kp & ->)].
  - apply (set_path_noauth sch segs last q f x u' K Hm Hx E Hb).
    exact (K8 (noauth_no_authority sch segs last q f) (noauth_is_cbb sch segs last q f Hm)).
  - destruct (set_path_auth dbg hp hpo hd st sch ui h pt p q f x u' K Hnf Hx E Hb) as (p' & K' & Kp' & ->).
    exact (Canon_auth_st hp hpo hd st sch ui h pt p' q f Hnf K' Kp').
Qed.

Lemma known_path_parts u o : is_host_or_path_op o = true -> known_step2 dbg hp hpo hd u o = false ->
  has_marker u = false /\ Known_F_C02_8 dbg hp hpo hd u o = false.
Proof.
  intros Ho Hk. unfold known_step2, known_step in Hk. rewrite !orb_false_iff in Hk.
  destruct Hk as [[[[[K1 _] _] K8] _] _]. unfold Known_F_C03_5 in K1. rewrite Ho, andb_true_r in K1. split; assumption.
Qed.

Theorem set_path_Canon_hier u x u' : Canon u -> cannot_be_a_base u = Some false -> usv_list x ->
  known_step2 dbg hp hpo hd u (OSetPath x) = false ->
  set_path dbg u x = Some u' -> nlen (ser u') <= U32_MAX_P -> Canon u'.
Proof.
  intros C Hcb Hx Hk E Hb. destruct (known_path_parts u (OSetPath x) eq_refl Hk) as [K1 K8].
  apply (set_path_Canon_core u x u' C Hcb Hx K1); [|exact E | exact Hb].
  intros Ha Hc. unfold Known_F_C02_8 in K8. rewrite Ha, Hc in K8. cbn [negb andb apply_op] in K8. rewrite E in K8. exact K8.
Qed.

(* url::quirks::set_pathname on EVERY Canon record (nothing on an opaque path), outside known_step2 *)
Theorem q_set_pathname_Canon_all u x u' : Canon u -> usv_list x ->
  known_step2 dbg hp hpo hd u (OQPathname x) = false ->
  q_set_pathname dbg u x = Some u' -> nlen (ser u') <= U32_MAX_P -> Canon u'.
Proof.
  intros C Hx Hk E Hb. destruct (known_path_parts u (OQPathname x) eq_refl Hk) as [K1 K8].
  assert (has_authority_b u = false -> is_cbb u = false -> (path_start u' =? scheme_end u' + 1) && path_leads_ss u' = false) as K8'.
  { intros Ha Hc. unfold Known_F_C02_8 in K8. rewrite Ha, Hc in K8. cbn [negb andb apply_op] in K8. rewrite E in K8. exact K8. }
  clear K8 Hk. unfold q_set_pathname in E.
  destruct (cannot_be_a_base u) as [[|]|] eqn:Hcb; cbn [bindo] in E; [inversion E; subst; exact C | | discriminate E].
  destruct (u_scheme_type u) as [st|]; cbn [bindo] in E; [|discriminate E].
  assert (usv_list (47 :: x)) as Hx' by (apply usv_cons; split; [left; lia | exact Hx]).
  destruct ((match x with 47 :: _ => true | _ => false end) || (st_is_special st && match x with 92 :: _ => true | _ => false end)).
  - exact (set_path_Canon_core u x u' C Hcb Hx K1 K8' E Hb).
  - destruct (st_is_special st || negb (match x with [] => true | _ => false end) || negb (has_host u)).
    + exact (set_path_Canon_core u (47 :: x) u' C Hcb Hx' K1 K8' E Hb).
    + exact (set_path_Canon_core u x u' C Hcb Hx K1 K8' E Hb).
Qed.
End PathCanonN.
