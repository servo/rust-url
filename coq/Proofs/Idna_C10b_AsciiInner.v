(* Proofs/Idna_C10b_AsciiInner.v - the adapter-free class of C10: all-ASCII names with no xn-- label.
   Closed form of the fail-fast process_inner on the class: no adapter function is consulted; every label outside
   the pass-through prefix is accepted iff its deny-list mapping has no U+FFFD and passes the hyphen checks, the
   domain buffer is the dot-joined mapping, every already_punycode entry is MixedCaseAscii. *)
From RU Require Import Base.Prelude Base.Utf8 Base.U32_c13 Gen.Tables Model.Punycode Model.Uts46
  Proofs.Idna_Sim Proofs.Idna_Api Proofs.Idna_Known Proofs.Idna_Hyp Proofs.Idna_Redisc
  Proofs.Idna_C10_Deny Proofs.Idna_C10_Prefix Proofs.Idna_C10_Inner Proofs.Idna_Mark Proofs.Idna_C10_Walk Proofs.Idna_Tables.

(* scan_mark and check_hyphens in fail-fast mode, in equational form *)
Lemma scan_mark_ff bad l : forall he, scan_mark true bad l he = if existsb bad l then SExit else SOk (l, he).
Proof.
  induction l as [|c r IH]; intros he; cbn [scan_mark existsb]; [reflexivity|].
  destruct (bad c); cbn [orb]; [reflexivity|]. rewrite IH. destruct (existsb bad r); reflexivity.
Qed.

Definition hyphen_free (allow34 : bool) (c : list N) : bool :=
  negb (match c with f :: _ => f =? HYPHEN | [] => false end) &&
  negb (match last_opt c with Some l => l =? HYPHEN | None => false end) &&
  (allow34 || negb ((4 <=? len c) && (nth 2 c 0 =? HYPHEN) && (nth 3 c 0 =? HYPHEN))).

Lemma check_hyphens_ff a c he : check_hyphens true a c he = if hyphen_free a c then SOk (c, he) else SExit.
Proof.
  unfold check_hyphens, hyphen_free.
  destruct c as [|f r].
  - destruct a; reflexivity.
  - cbn [sbind]. destruct (f =? HYPHEN); cbn [sbind negb andb]; [reflexivity|].
    destruct (last_opt (f :: r)) as [x|].
    + destruct (x =? HYPHEN); cbn [sbind negb andb]; [reflexivity|].
      destruct a; cbn [orb]; [reflexivity|].
      destruct ((4 <=? len (f :: r)) && (nth 2 (f :: r) 0 =? HYPHEN) && (nth 3 (f :: r) 0 =? HYPHEN)); reflexivity.
    + cbn [sbind negb andb].
      destruct a; cbn [orb]; [reflexivity|].
      destruct ((4 <=? len (f :: r)) && (nth 2 (f :: r) 0 =? HYPHEN) && (nth 3 (f :: r) 0 =? HYPHEN)); reflexivity.
Qed.

Definition cmap (deny : N) (l : list N) : list N := map (apply_upper deny) l.

(* one label is accepted: no character is denied (upper-case letters are folded), and the hyphen checks pass *)
Definition lab_acc (deny : N) (hy : hyphens) (l : list N) : bool :=
  negb (existsb is_fffd (cmap deny l)) && (hy_is_allow hy || hyphen_free (hy_is_cfl hy) (cmap deny l)).

Definition an_label (l : list N) : Prop := Forall (fun b => b < 128) l /\ has_punycode_prefix l = false.
(* all-ASCII, no label starts with xn-- (in any case) *)
Definition AN (d : list N) : Prop := Forall an_label (split_on DOT d).

Lemma ascii_position l : Forall (fun b => b < 128) l -> position (fun b => negb (is_ascii_cp b)) l = None.
Proof.
  induction 1 as [|x r Hx _ IH]; cbn [position]; [reflexivity|].
  unfold is_ascii_cp at 1. replace (x <? 128) with true by lia. cbn [negb]. rewrite IH. reflexivity.
Qed.

Lemma label_nonempty_an A cfg hy deny label db ap : an_label label ->
  label_nonempty A cfg true hy deny label db false ap =
  if lab_acc deny hy label then SOk (db ++ cmap deny label, false, ap ++ [MixedCaseAscii label]) else SExit.
Proof.
  intros [Ha Hp]. rewrite label_nonempty_eq. unfold split_ascii_fast_path_prefix. rewrite (ascii_position label Ha).
  rewrite Hp. unfold complexT, lab_acc, cmap. rewrite scan_mark_ff.
  destruct (existsb is_fffd (map (apply_upper deny) label)); cbn [sbind negb andb]; [reflexivity|].
  destruct (hy_is_allow hy); cbn [negb orb sbind]; [reflexivity|].
  rewrite check_hyphens_ff. destruct (hyphen_free (hy_is_cfl hy) (map (apply_upper deny) label)); reflexivity.
Qed.

Section Acc.
Variable deny : N.
Hypothesis HU : DenyUpper deny.
Hypothesis HL : LdhFree deny.

Lemma apply_upper_clean b : clean deny b -> apply_upper deny b = b.
Proof. intros [_ Hm]. unfold apply_upper. unfold deny_member in Hm. destruct (N.land deny (N.shiftl 1 b) =? 0); [reflexivity|discriminate]. Qed.

Lemma cmap_clean l : Forall (clean deny) l -> cmap deny l = l.
Proof.
  induction 1 as [|x r Hx _ IH]; cbn [cmap map]; [reflexivity|]. rewrite (apply_upper_clean x Hx). f_equal. exact IH.
Qed.

Lemma clean_nofffd l : Forall (clean deny) l -> existsb is_fffd l = false.
Proof.
  induction 1 as [|x r [Hx _] _ IH]; cbn [existsb]; [reflexivity|]. rewrite IH.
  unfold is_fffd, FFFD, REPLACEMENT. replace (x =? 65533) with false by lia. reflexivity.
Qed.

Lemma passthrough_hyphen_free a label : is_passthrough_ascii_label label = true -> hyphen_free a label = true.
Proof.
  unfold is_passthrough_ascii_label, hyphen_free.
  destruct ((4 <=? len label) && (nth 2 label 0 =? HYPHEN) && (nth 3 label 0 =? HYPHEN)); [discriminate|].
  destruct label as [|f t]; [intros _; destruct a; reflexivity|].
  destruct (in_inclusive_range8 f 97 122) eqn:E1; cbn [negb]; [|discriminate].
  destruct (forallb (fun b => in_inclusive_range8 b 97 122 || in_inclusive_range8 b 48 57 || (b =? HYPHEN)) t); cbn [negb]; [|discriminate].
  intros H. rewrite H. rewrite orb_true_r, !andb_true_r.
  destruct (f =? HYPHEN) eqn:E; [|reflexivity]. apply N.eqb_eq in E. subst f. discriminate E1.
Qed.

Lemma passthrough_acc hy label : bytes label -> is_passthrough_ascii_label label = true -> lab_acc deny hy label = true.
Proof.
  intros Hb Hp. pose proof (passthrough_clean deny label HL Hb Hp) as Hc. unfold lab_acc.
  rewrite (cmap_clean label Hc), (clean_nofffd label Hc), (passthrough_hyphen_free _ label Hp).
  rewrite orb_true_r. reflexivity.
Qed.

(* the mapping of an accepted ASCII label: ASCII lower-casing *)
Lemma apply_upper_lower b : b < 128 -> apply_upper deny b <> FFFD -> apply_upper deny b = to_lower b.
Proof.
  intros Hb. unfold apply_upper, to_lower.
  destruct (N.land deny (N.shiftl 1 b) =? 0) eqn:E.
  - intros _. destruct (is_upper b) eqn:Eu; [|reflexivity].
    pose proof (HU b Eu) as Hm. unfold deny_member in Hm. rewrite E in Hm. discriminate.
  - destruct (in_inclusive_range8 b 65 90) eqn:E2; [|intros H; contradiction H; reflexivity].
    intros _. apply range8_spec in E2; [|lia|lia|lia]. unfold is_upper. replace ((65 <=? b) && (b <=? 90)) with true by lia. reflexivity.
Qed.

Lemma cmap_lower l : Forall (fun b => b < 128) l -> existsb is_fffd (cmap deny l) = false -> cmap deny l = map to_lower l.
Proof.
  induction 1 as [|x r Hx _ IH]; cbn [cmap map existsb]; [reflexivity|].
  intros H. apply orb_false_iff in H. destruct H as [H1 H2]. rewrite (apply_upper_lower x Hx).
  - f_equal. exact (IH H2).
  - intros Hq. unfold is_fffd in H1. rewrite Hq, N.eqb_refl in H1. discriminate.
Qed.

(* the mapping does not depend on the case of the label *)
Lemma apply_upper_of_lower b : b < 128 -> apply_upper deny (to_lower b) = apply_upper deny b.
Proof.
  intros Hb. unfold to_lower. destruct (is_upper b) eqn:Eu; [|reflexivity].
  assert (Hr : 65 <= b /\ b <= 90) by (unfold is_upper in Eu; lia).
  assert (Hc : clean deny (b + 32)) by (apply ldh_clean; [exact HL|unfold ldh, is_lower; lia]).
  rewrite (apply_upper_clean _ Hc).
  unfold apply_upper. pose proof (HU b Eu) as Hm. unfold deny_member in Hm.
  destruct (N.land deny (N.shiftl 1 b) =? 0); [discriminate|].
  unfold in_inclusive_range8. replace ((b + 256 - 65) mod 256 <=? 90 - 65) with true; [reflexivity|].
  symmetry. apply N.leb_le. replace (b + 256 - 65) with (b - 65 + 1 * 256) by lia.
  rewrite N.mod_add by lia. rewrite N.mod_small by lia. lia.
Qed.

Lemma cmap_of_lower l : Forall (fun b => b < 128) l -> cmap deny (map to_lower l) = cmap deny l.
Proof.
  induction 1 as [|x r Hx _ IH]; cbn [cmap map]; [reflexivity|]. rewrite (apply_upper_of_lower x Hx). f_equal. exact IH.
Qed.

Lemma lab_acc_lower hy l : Forall (fun b => b < 128) l -> lab_acc deny hy (map to_lower l) = lab_acc deny hy l.
Proof. intros H. unfold lab_acc. rewrite (cmap_of_lower l H). reflexivity. Qed.
End Acc.

(* the label step on the class AN, in closed form; no adapter function occurs *)
Definition an_next (deny : N) (label : list N) (s : ist) : ist :=
  if i_inpre s && is_passthrough_ascii_label label then
    {| i_ptu := i_ptu s + (if i_seen s then 1 else 0) + len label; i_seen := true; i_inpre := true;
       i_db := i_db s; i_he := i_he s; i_ap := i_ap s |}
  else
    {| i_ptu := if i_seen s && i_inpre s then i_ptu s + 1 else i_ptu s; i_seen := true; i_inpre := false;
       i_db := (if i_seen s && negb (i_inpre s) then i_db s ++ [DOT] else i_db s) ++ cmap deny label;
       i_he := false; i_ap := i_ap s ++ [MixedCaseAscii label] |}.
Fixpoint an_end (deny : N) (labels : list (list N)) (s : ist) : ist :=
  match labels with [] => s | l :: r => an_end deny r (an_next deny l s) end.

Section Loop.
Variable A : adapter.
Variable cfg : bool.
Variable deny : N.
Hypothesis HU : DenyUpper deny.
Hypothesis HL : LdhFree deny.

Lemma label_step_an hy label s : an_label label -> i_he s = false ->
  label_step A cfg true hy deny label s = if lab_acc deny hy label then SOk (an_next deny label s) else SExit.
Proof.
  intros Hl Hs. unfold label_step, an_next.
  destruct (i_inpre s && is_passthrough_ascii_label label) eqn:Ec.
  - apply andb_true_iff in Ec. destruct Ec as [_ Ep].
    assert (Hb : bytes label).
    { unfold bytes. eapply Forall_impl; [|exact (proj1 Hl)]. unfold is_byte. cbv beta. intros; lia. }
    rewrite (passthrough_acc deny HL hy label Hb Ep). reflexivity.
  - destruct label as [|b r].
    + unfold lab_acc, cmap. cbn [map existsb negb andb]. unfold hyphen_free. cbn [last_opt negb andb].
      replace (4 <=? len []) with false by reflexivity. cbn [andb negb]. rewrite !orb_true_r.
      rewrite Hs. cbn [app]. rewrite app_nil_r. reflexivity.
    + rewrite Hs. rewrite (label_nonempty_an A cfg hy deny (b :: r) _ _ Hl).
      destruct (lab_acc deny hy (b :: r)); reflexivity.
Qed.

Lemma an_next_he label s : i_he s = false -> i_he (an_next deny label s) = false.
Proof. intros H. unfold an_next. destruct (i_inpre s && is_passthrough_ascii_label label); cbn [i_he]; [exact H|reflexivity]. Qed.

Lemma labels_loop_an hy labels : forall s, Forall an_label labels -> i_he s = false ->
  labels_loop A cfg true hy deny labels s =
  if forallb (lab_acc deny hy) labels then SOk (an_end deny labels s) else SExit.
Proof.
  induction labels as [|l r IH]; intros s Hls Hs; cbn [labels_loop forallb an_end]; [reflexivity|].
  inversion Hls as [|? ? Hl Hr]; subst.
  rewrite (label_step_an hy l s Hl Hs). destruct (lab_acc deny hy l); cbn [sbind andb]; [|reflexivity].
  apply IH; [exact Hr|apply an_next_he; exact Hs].
Qed.
End Loop.

Lemma nodot_cmap deny l : Forall (fun b => b < 128) l -> ~ In DOT l -> existsb is_fffd (cmap deny l) = false -> ~ In DOT (cmap deny l).
Proof.
  intros Ha Hn Hf Hin. unfold cmap in Hin. apply in_map_iff in Hin. destruct Hin as (b & Hb & Hi).
  assert (b <> DOT) by (intros ->; exact (Hn Hi)).
  rewrite Forall_forall in Ha. specialize (Ha b Hi).
  unfold apply_upper in Hb. destruct (N.land deny (N.shiftl 1 b) =? 0); [contradiction|].
  destruct (in_inclusive_range8 b 65 90) eqn:E2.
  - apply range8_spec in E2; [|lia|lia|lia]. unfold DOT in *. lia.
  - unfold DOT, FFFD, REPLACEMENT in *. lia.
Qed.

Lemma split1_app_dot pre t :
  split1 DOT (pre ++ DOT :: t) = (fst (split1 DOT pre), snd (split1 DOT pre) ++ fst (split1 DOT t) :: snd (split1 DOT t)).
Proof.
  induction pre as [|x r IH]; cbn [app split1].
  - destruct (split1 DOT t) as [h2 r2]. rewrite N.eqb_refl. reflexivity.
  - rewrite IH. destruct (split1 DOT r) as [h r1]. destruct (split1 DOT t) as [h2 r2]. cbn [fst snd].
    destruct (x =? DOT); reflexivity.
Qed.
Lemma split_on_app_dot pre t : split_on DOT (pre ++ DOT :: t) = split_on DOT pre ++ split_on DOT t.
Proof.
  unfold split_on. rewrite split1_app_dot. destruct (split1 DOT pre) as [h r]. destruct (split1 DOT t) as [h2 r2]. reflexivity.
Qed.

(* nodot (Proofs/Idna_Mark.v) and "DOT does not occur" are the same thing *)
Lemma nodot_notin l : nodot l -> ~ In DOT l.
Proof. intros H Hin. unfold nodot in H. rewrite Forall_forall in H. exact (H DOT Hin eq_refl). Qed.
Lemma notin_nodot l : ~ In DOT l -> nodot l.
Proof. intros H. unfold nodot. apply Forall_forall. intros x Hx E. subst x. exact (H Hx). Qed.

Lemma split1_nodot l h t : split1 DOT l = (h, t) -> ~ In DOT h /\ Forall (fun x => ~ In DOT x) t.
Proof.
  intros H. destruct (Idna_Mark.split1_nodot l h t H) as [H1 H2].
  split; [exact (nodot_notin h H1)|]. eapply Forall_impl; [|exact H2]. exact nodot_notin.
Qed.
Lemma split_on_nodot l : Forall (fun x => ~ In DOT x) (split_on DOT l).
Proof. unfold split_on. destruct (split1 DOT l) as [h t] eqn:E. destruct (split1_nodot l h t E). constructor; assumption. Qed.
Lemma split_join ls : ls <> [] -> Forall (fun x => ~ In DOT x) ls -> split_on DOT (join_dots ls) = ls.
Proof. intros Hne H. apply (Idna_Mark.split_join ls Hne). eapply Forall_impl; [|exact H]. exact notin_nodot. Qed.

Lemma join_dots_snoc ls x : ls <> [] -> join_dots (ls ++ [x]) = join_dots ls ++ DOT :: x.
Proof.
  induction ls as [|y r IH]; intros Hne; [contradiction Hne; reflexivity|].
  destruct r as [|z r'].
  - reflexivity.
  - change (join_dots ((y :: z :: r') ++ [x])) with (y ++ DOT :: join_dots ((z :: r') ++ [x])).
    rewrite IH by discriminate. change (join_dots (y :: z :: r')) with (y ++ DOT :: join_dots (z :: r')).
    rewrite <- app_assoc. reflexivity.
Qed.

Lemma range8_intro b s e : s <= b -> b <= e -> e < 256 -> in_inclusive_range8 b s e = true.
Proof.
  intros H1 H2 H3. unfold in_inclusive_range8. apply N.leb_le.
  replace (b + 256 - s) with (b - s + 1 * 256) by lia. rewrite N.mod_add by lia. rewrite N.mod_small by lia. lia.
Qed.

Lemma lower_label_passthrough l : Forall (fun b => 97 <= b /\ b <= 122) l -> is_passthrough_ascii_label l = true.
Proof.
  intros H. unfold is_passthrough_ascii_label.
  assert (Hn : forall i, (i < List.length l)%nat -> (nth i l 0 =? HYPHEN) = false).
  { intros i Hi. rewrite Forall_forall in H. pose proof (H _ (nth_In l 0 Hi)) as Hx. unfold HYPHEN. lia. }
  destruct ((4 <=? len l) && (nth 2 l 0 =? HYPHEN) && (nth 3 l 0 =? HYPHEN)) eqn:E.
  { apply andb_true_iff in E. destruct E as [E E3]. apply andb_true_iff in E. destruct E as [E4 E2].
    unfold len in E4. rewrite Hn in E2 by lia. discriminate. }
  destruct l as [|f t]; [reflexivity|]. inversion H as [|? ? Hf Ht]; subst.
  rewrite (range8_intro f 97 122) by lia. cbn [negb].
  assert (Hfa : forallb (fun b => in_inclusive_range8 b 97 122 || in_inclusive_range8 b 48 57 || (b =? HYPHEN)) t = true).
  { apply forallb_forall. intros x Hx. rewrite Forall_forall in Ht. specialize (Ht x Hx).
    rewrite (range8_intro x 97 122) by lia. reflexivity. }
  rewrite Hfa. cbn [negb].
  destruct (last_opt (f :: t)) as [x|] eqn:El; [|reflexivity].
  apply last_opt_in in El. rewrite Forall_forall in H. specialize (H x El). unfold HYPHEN.
  replace (x =? 45) with false by lia. reflexivity.
Qed.

Lemma lower_or_dot_labels deny hy d : LdhFree deny -> Forall lower_or_dot d ->
  forallb (lab_acc deny hy) (split_on DOT d) = true.
Proof.
  intros HL H. apply forallb_forall. intros l Hl.
  assert (Hlow : Forall (fun b => 97 <= b /\ b <= 122) l).
  { pose proof (split_on_Forall lower_or_dot DOT d H) as H1. pose proof (split_on_nodot d) as H2.
    rewrite Forall_forall in H1, H2. specialize (H1 l Hl). specialize (H2 l Hl).
    apply Forall_forall. intros x Hx. rewrite Forall_forall in H1. destruct (H1 x Hx) as [Hr|Hr]; [exact Hr|].
    subst x. contradiction (H2 Hx). }
  apply passthrough_acc; [exact HL| |exact (lower_label_passthrough l Hlow)].
  unfold bytes. eapply Forall_impl; [|exact Hlow]. unfold is_byte. cbv beta. intros; lia.
Qed.

(* is_bidi consults no bidi class on ASCII text *)
Lemma is_bidi_ascii A cfg l : Forall (fun b => b < 128) l -> is_bidi A cfg l = Ok false.
Proof.
  induction 1 as [|x r Hx _ IH]; cbn [is_bidi]; [reflexivity|].
  replace (x <? T_IDNA_BIDI_BELOW) with true; [exact IH|]. symmetry. apply N.ltb_lt.
  rewrite (proj1 idna_ranges). lia.
Qed.

Section Final.
Variable deny : N.
Variable hy : hyphens.
Hypothesis HU : DenyUpper deny.
Hypothesis HL : LdhFree deny.

Definition good_label (l : list N) : Prop := an_label l /\ ~ In DOT l /\ lab_acc deny hy l = true.

Definition AnInv (s : ist) : Prop :=
  i_he s = false /\ exists rl, i_ap s = map MixedCaseAscii rl /\ Forall good_label rl /\
    if i_inpre s then rl = [] /\ i_db s = []
    else rl <> [] /\ i_seen s = true /\ i_db s = join_dots (map (cmap deny) rl).

Lemma an_next_inv label s : good_label label -> AnInv s -> AnInv (an_next deny label s).
Proof.
  intros Hg (Hhe & rl & Hap & Hrl & H). unfold an_next.
  destruct (i_inpre s && is_passthrough_ascii_label label) eqn:Ec.
  - apply andb_true_iff in Ec. destruct Ec as [Ei _]. rewrite Ei in H.
    split; [exact Hhe|]. exists rl. cbn [i_ap i_inpre i_db]. repeat split; try assumption; exact (proj1 H) || exact (proj2 H).
  - split; [reflexivity|]. exists (rl ++ [label]). cbn [i_ap i_inpre i_db i_seen].
    split; [rewrite map_app, Hap; reflexivity|].
    split; [apply Forall_app; split; [exact Hrl|constructor; [exact Hg|constructor]]|].
    split; [destruct rl; discriminate|]. split; [reflexivity|].
    destruct (i_inpre s).
    + destruct H as [-> ->]. rewrite andb_false_r. reflexivity.
    + destruct H as (Hne & Hseen & Hdb). rewrite Hseen. cbn [andb negb].
      rewrite map_app. cbn [map]. rewrite join_dots_snoc by (destruct rl; [contradiction Hne; reflexivity|discriminate]).
      rewrite Hdb, <- app_assoc. reflexivity.
Qed.

Lemma an_end_inv labels : forall s, Forall good_label labels -> AnInv s -> AnInv (an_end deny labels s).
Proof.
  induction labels as [|l r IH]; intros s Hl Hs; cbn [an_end]; [exact Hs|].
  inversion Hl as [|? ? H1 H2]; subst. apply IH; [exact H2|]. apply an_next_inv; assumption.
Qed.

(* what the buffer of a final state looks like *)
Lemma good_cmap l : good_label l ->
  cmap deny l = map to_lower l /\ Forall (fun b => b < 128) (cmap deny l) /\ ~ In DOT (cmap deny l) /\
  existsb is_fffd (cmap deny l) = false.
Proof.
  intros ((Ha & _) & Hn & Hacc). unfold lab_acc in Hacc. apply andb_true_iff in Hacc. destruct Hacc as [Hf _].
  apply negb_true_iff in Hf. pose proof (cmap_lower deny HU l Ha Hf) as Hc.
  split; [exact Hc|]. split; [|split; [exact (nodot_cmap deny l Ha Hn Hf)|exact Hf]].
  rewrite Hc. apply Forall_forall. intros x Hx. apply in_map_iff in Hx. destruct Hx as (b & <- & Hb).
  rewrite Forall_forall in Ha. specialize (Ha b Hb). unfold to_lower, is_upper.
  destruct ((65 <=? b) && (b <=? 90)) eqn:E; lia.
Qed.

Lemma AnInv_db s : AnInv s ->
  Forall (fun b => b < 128) (i_db s) /\ existsb is_fffd (i_db s) = false /\
  exists rl, i_ap s = map MixedCaseAscii rl /\ (rl <> [] -> split_on DOT (i_db s) = map (cmap deny) rl).
Proof.
  intros (_ & rl & Hap & Hrl & H).
  assert (HF : Forall (fun c => Forall (fun b => b < 128) c /\ ~ In DOT c /\ existsb is_fffd c = false) (map (cmap deny) rl)).
  { apply Forall_forall. intros c Hc. apply in_map_iff in Hc. destruct Hc as (l & <- & Hl).
    rewrite Forall_forall in Hrl. destruct (good_cmap l (Hrl l Hl)) as (_ & H1 & H2 & H3). repeat split; assumption. }
  destruct (i_inpre s).
  - destruct H as [-> Hdb]. rewrite Hdb. split; [constructor|]. split; [reflexivity|]. exists []. split; [exact Hap|].
    intros Hne. contradiction Hne. reflexivity.
  - destruct H as (Hne & _ & Hdb). rewrite Hdb. split; [|split].
    + apply join_dots_Forall; [unfold DOT; lia|]. eapply Forall_impl; [|exact HF]. cbv beta. intros a Ha. exact (proj1 Ha).
    + assert (G : forall ls, Forall (fun c => existsb is_fffd c = false) ls -> existsb is_fffd (join_dots ls) = false).
      { clear. induction ls as [|x r IH]; intros H; [reflexivity|]. inversion H as [|? ? Hx Hr]; subst.
        rewrite join_dots_cons, existsb_app, Hx. destruct r as [|y r']; [reflexivity|].
        cbn [tailtext existsb orb]. rewrite (IH Hr). reflexivity. }
      apply G. eapply Forall_impl; [|exact HF]. cbv beta. intros a Ha. exact (proj2 (proj2 Ha)).
    + exists rl. split; [exact Hap|]. intros _. apply split_join.
      * destruct rl; [contradiction Hne; reflexivity|discriminate].
      * eapply Forall_impl; [|exact HF]. cbv beta. intros a Ha. exact (proj1 (proj2 Ha)).
Qed.
End Final.

Definition s_init (d tail : list N) : ist :=
  {| i_ptu := len d - len tail; i_seen := false; i_inpre := true; i_db := []; i_he := false; i_ap := [] |}.

Definition an_inner (deny : N) (hy : hyphens) (d : list N) : inner_res :=
  match fast_tier d d with
  | None => IRes (len d) false false [] []
  | Some tail =>
      if forallb (lab_acc deny hy) (split_on DOT tail) then
        let s := an_end deny (split_on DOT tail) (s_init d tail) in IRes (i_ptu s) false false (i_db s) (i_ap s)
      else I_EXIT
  end.

Section InnerAN.
Variable deny : N.
Variable hy : hyphens.
Hypothesis HU : DenyUpper deny.
Hypothesis HL : LdhFree deny.

Lemma AnInv_init d tail : AnInv deny hy (s_init d tail).
Proof. split; [reflexivity|]. exists []. cbn [s_init i_ap i_inpre i_db map]. repeat split; constructor. Qed.

Lemma good_labels labels : Forall an_label labels -> Forall (fun x => ~ In DOT x) labels ->
  forallb (lab_acc deny hy) labels = true -> Forall (good_label deny hy) labels.
Proof.
  intros H1 H2 H3. rewrite forallb_forall in H3. apply Forall_forall. intros l Hl.
  rewrite Forall_forall in H1, H2. repeat split; [exact (proj1 (H1 l Hl))|exact (proj2 (H1 l Hl))|exact (H2 l Hl)|exact (H3 l Hl)].
Qed.

Lemma innermost_an A cfg d tail : Forall an_label (split_on DOT tail) ->
  process_innermost A cfg true hy deny d tail =
  if forallb (lab_acc deny hy) (split_on DOT tail) then
    let s := an_end deny (split_on DOT tail) (s_init d tail) in IRes (i_ptu s) false false (i_db s) (i_ap s)
  else I_EXIT.
Proof.
  intros Han. unfold process_innermost. fold (s_init d tail).
  rewrite (labels_loop_an A cfg deny HL hy (split_on DOT tail) (s_init d tail) Han eq_refl).
  destruct (forallb (lab_acc deny hy) (split_on DOT tail)) eqn:Ef; [|reflexivity].
  pose proof (an_end_inv deny hy (split_on DOT tail) (s_init d tail)
                (good_labels _ Han (split_on_nodot tail) Ef) (AnInv_init d tail)) as HI.
  destruct (AnInv_db deny hy HU (an_end deny (split_on DOT tail) (s_init d tail)) HI) as (Hasc & _ & _).
  rewrite (is_bidi_ascii A cfg _ Hasc). cbv zeta. rewrite (proj1 HI). reflexivity.
Qed.

(* the labels of the tail are labels of the name; the labels in front of it are accepted *)
Lemma tail_labels d tail : bytes d -> fast_tier d d = Some tail ->
  exists front, split_on DOT d = front ++ split_on DOT tail /\ forallb (lab_acc deny hy) front = true.
Proof.
  intros Hb Hf. destruct (fast_tier_tail d Hb d tail Hf) as [->|(pre & Hd & Hp)].
  - exists []. split; reflexivity.
  - exists (split_on DOT pre). split; [rewrite Hd at 1; apply split_on_app_dot|].
    exact (lower_or_dot_labels deny hy pre HL Hp).
Qed.

Theorem process_inner_an_eq A cfg d : bytes d -> AN d -> process_inner A cfg true hy deny d = an_inner deny hy d.
Proof.
  intros Hb Han. unfold process_inner, an_inner. destruct (fast_tier d d) as [tail|] eqn:Ef; [|reflexivity].
  destruct (tail_labels d tail Hb Ef) as (front & Hs & _). unfold AN in Han. rewrite Hs in Han.
  apply Forall_app in Han. exact (innermost_an A cfg d tail (proj2 Han)).
Qed.

(* the result, with the positional invariant of Proofs/Idna_C10_Inner.v (obtained through the identity adapter) *)
Theorem process_inner_an_facts A cfg d : bytes d -> AN d ->
  if forallb (lab_acc deny hy) (split_on DOT d) then
    exists ptu db P rl, process_inner A cfg true hy deny d = IRes ptu false false db (map MixedCaseAscii rl) /\
      d = P ++ join_dots rl /\ len P = ptu /\ Forall (clean deny) P /\
      existsb is_fffd db = false /\ (rl <> [] -> split_on DOT db = map (cmap deny) rl)
  else process_inner A cfg true hy deny d = I_EXIT /\ d <> [].
Proof.
  intros Hb Han.
  assert (Hacc : forall tail, fast_tier d d = Some tail ->
            forallb (lab_acc deny hy) (split_on DOT d) = forallb (lab_acc deny hy) (split_on DOT tail)).
  { intros tail Ef. destruct (tail_labels d tail Hb Ef) as (front & Hs & Hfr). rewrite Hs, forallb_app, Hfr. reflexivity. }
  pose proof (process_inner_an_eq A cfg d Hb Han) as EA.
  pose proof (process_inner_an_eq toy cfg d Hb Han) as ET.
  unfold an_inner in EA, ET. destruct (fast_tier d d) as [tail|] eqn:Ef.
  - rewrite (Hacc tail eq_refl). destruct (forallb (lab_acc deny hy) (split_on DOT tail)) eqn:Eacc.
    + cbv zeta in EA, ET. set (s := an_end deny (split_on DOT tail) (s_init d tail)) in *.
      assert (HI : AnInv deny hy s).
      { apply an_end_inv; [|apply AnInv_init]. apply good_labels; [|apply split_on_nodot|exact Eacc].
        destruct (tail_labels d tail Hb Ef) as (front & Hs & _). unfold AN in Han. rewrite Hs in Han.
        apply Forall_app in Han. exact (proj2 Han). }
      destruct (AnInv_db deny hy HU s HI) as (_ & Hnf & rl & Hap & Hsp).
      destruct (process_inner_ff toy cfg deny HU HL d Hb hy _ _ _ _ _ toy_notrunc ET) as [Hx|Hinv]; [inversion Hx|].
      destruct Hinv as (_ & _ & P & rl' & Hdd & HP & Hc & Hmp).
      assert (Hrl : rl' = rl).
      { rewrite Hap in Hmp. clear -Hmp. revert rl' Hmp. induction rl as [|x r IH]; intros rl' H; cbn [map mp_ok] in H; [exact H|].
        destruct rl' as [|y r']; [contradiction|]. destruct H as [-> H]. f_equal. exact (IH _ H). }
      subst rl'. exists (i_ptu s), (i_db s), P, rl. rewrite EA, Hap. repeat split; assumption.
    + split; [exact EA|]. intros ->. discriminate Ef.
  - replace (forallb (lab_acc deny hy) (split_on DOT d)) with true
      by (symmetry; exact (lower_or_dot_labels deny hy d HL (fast_tier_none d Hb d Ef))).
    exists (len d), [], d, []. rewrite EA. cbn [map join_dots]. rewrite app_nil_r. repeat split.
    + eapply Forall_impl; [|exact (fast_tier_none d Hb d Ef)]. intros x. apply lower_or_dot_clean. exact HL.
    + intros H. contradiction H. reflexivity.
Qed.
End InnerAN.

(* the same run in either mode (fail-fast or marking) when every label is accepted: for ToUnicode / C12 *)
Lemma check_hyphens_free ff a c he : hyphen_free a c = true -> check_hyphens ff a c he = SOk (c, he).
Proof.
  unfold check_hyphens, hyphen_free. intros H.
  apply andb_true_iff in H. destruct H as [H H3]. apply andb_true_iff in H. destruct H as [H1 H2].
  apply negb_true_iff in H1. apply negb_true_iff in H2.
  destruct c as [|f r].
  - cbn [sbind last_opt]. destruct a; [reflexivity|]. reflexivity.
  - rewrite H1. cbn [sbind]. destruct (last_opt (f :: r)) as [x|]; [rewrite H2|]; cbn [sbind];
      (destruct a; [reflexivity|]); cbn [orb] in H3; apply negb_true_iff in H3; rewrite H3; reflexivity.
Qed.

Section AnyMode.
Variable A : adapter.
Variable cfg : bool.
Variable ff : bool.
Variable deny : N.
Variable hy : hyphens.
Hypothesis HU : DenyUpper deny.
Hypothesis HL : LdhFree deny.

Lemma label_nonempty_good label db ap : an_label label -> lab_acc deny hy label = true ->
  label_nonempty A cfg ff hy deny label db false ap = SOk (db ++ cmap deny label, false, ap ++ [MixedCaseAscii label]).
Proof.
  intros [Ha Hp] Hacc. rewrite label_nonempty_eq. unfold split_ascii_fast_path_prefix. rewrite (ascii_position label Ha).
  rewrite Hp. unfold complexT. unfold lab_acc, cmap in Hacc. apply andb_true_iff in Hacc. destruct Hacc as [Hf Hh].
  apply negb_true_iff in Hf.
  rewrite (scan_mark_none ff is_fffd _ false Hf). cbn [sbind].
  destruct (hy_is_allow hy); cbn [negb orb] in *; [reflexivity|].
  rewrite (check_hyphens_free ff _ _ false Hh). reflexivity.
Qed.

Lemma label_step_good label s : good_label deny hy label -> i_he s = false ->
  label_step A cfg ff hy deny label s = SOk (an_next deny label s).
Proof.
  intros (Hl & _ & Hacc) Hs. unfold label_step, an_next.
  destruct (i_inpre s && is_passthrough_ascii_label label); [reflexivity|].
  destruct label as [|b r].
  - rewrite Hs. cbn [cmap map]. rewrite app_nil_r. reflexivity.
  - rewrite Hs. rewrite (label_nonempty_good (b :: r) _ _ Hl Hacc). reflexivity.
Qed.

Lemma labels_loop_good labels : forall s, Forall (good_label deny hy) labels -> i_he s = false ->
  labels_loop A cfg ff hy deny labels s = SOk (an_end deny labels s).
Proof.
  induction labels as [|l r IH]; intros s Hls Hs; cbn [labels_loop an_end]; [reflexivity|].
  inversion Hls as [|? ? Hl Hr]; subst. rewrite (label_step_good l s Hl Hs). cbn [sbind].
  apply IH; [exact Hr|apply an_next_he; exact Hs].
Qed.

(* on an accepted name of the class the marking run and the fail-fast run of process_inner return the same *)
Theorem process_inner_an_acc d : bytes d -> AN d -> forallb (lab_acc deny hy) (split_on DOT d) = true ->
  process_inner A cfg ff hy deny d = an_inner deny hy d.
Proof.
  intros Hb Han Hacc. unfold process_inner, an_inner. destruct (fast_tier d d) as [tail|] eqn:Ef; [|reflexivity].
  destruct (tail_labels deny hy HL d tail Hb Ef) as (front & Hs & _).
  unfold AN in Han. rewrite Hs in Han, Hacc. apply Forall_app in Han. destruct Han as [_ Han].
  rewrite forallb_app in Hacc. apply andb_true_iff in Hacc. destruct Hacc as [_ Hacc]. rewrite Hacc.
  pose proof (good_labels deny hy _ Han (split_on_nodot tail) Hacc) as Hg.
  unfold process_innermost. fold (s_init d tail).
  rewrite (labels_loop_good (split_on DOT tail) (s_init d tail) Hg eq_refl).
  pose proof (an_end_inv deny hy (split_on DOT tail) (s_init d tail) Hg (AnInv_init deny hy d tail)) as HI.
  destruct (AnInv_db deny hy HU (an_end deny (split_on DOT tail) (s_init d tail)) HI) as (Hasc & _ & _).
  rewrite (is_bidi_ascii A cfg _ Hasc). cbv zeta. rewrite (proj1 HI). reflexivity.
Qed.
End AnyMode.
