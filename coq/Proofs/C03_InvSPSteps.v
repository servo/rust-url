(* Proofs/C03_InvSPSteps.v - "a special scheme implies that the byte at path_start is '/'", part B: the mutators (the
   histories follow in C03_InvSPReach.v).  For a special URL (which has an authority: AS) every step outside excl03 either
   keeps path() (every kind of C03_ReachAll.step_cases but KK_path: the setters of fragment, query, port, host,
   credentials, scheme and their quirks forms) or writes a new path through the path states of a special scheme:
   Url::set_path / quirks set_pathname through parse_path_start, which pushes '/' (pps_special_nonempty: any context),
   path_segments_mut sessions through truncations behind the first '/' and parse_path entered behind it (session_sl).
   The scheme class only goes from special to special (C03_ReachJoin.spb_back).  Hence SP is an invariant of reach03j
   and of C02's quantifier Reachable3 (inv03s = inv03 /\ SP), and C04_SetPath.psm_assert_fails is false on every such
   record. *)
From RU Require Import Base.Prelude Model.HostT Model.UrlRecord Model.Parser Model.Setters Model.WF Proofs.ListN Proofs.C02_Reach
  Proofs.C03_WF Proofs.C06_List Proofs.C06_WFI Proofs.C06_Tail Proofs.C06_Steps Proofs.C06_Suffix Proofs.C06_HostNone
  Proofs.C06_Path Proofs.C06_Main Proofs.C04_PathTotal Proofs.C04_ParseTotal Proofs.C04_PathCtx Proofs.C04_SetPath
  Proofs.C03_ReachParts Proofs.C03_ReachAll Proofs.C03_AuthEnd Proofs.C05_AuthOfs Proofs.C05_HostText Proofs.C05_PathSpSteps
  Proofs.C03_ParseFront Proofs.C03_ReachKnown Proofs.C03_ReachJoin Proofs.C03_InvSP Proofs.C05_CompSteps2.

Open Scope N_scope.
Open Scope list_scope.

(* path_sl and the getter *)
Lemma path_sl_getter u : wf_b u = true -> (path_sl u <-> exists r, path u = Some (47 :: r)).
Proof.
  intros W. rewrite (path_eval u W). unfold piece. change (pidx u AfterPath) with (path_end u). cbn [pidx].
  destruct (wf_ps_le_path_end u W) as [B5 B6]. split.
  - intros H. pose proof (path_sl_nonempty u W H) as L. unfold path_sl in H.
    destruct (nfirstn (path_end u - path_start u) (nskipn (path_start u) (ser u))) as [|c r] eqn:E.
    + exfalso. apply (f_equal nlen) in E. rewrite nlen_nfirstn in E by (rewrite nlen_nskipn; lia). rewrite nlen_nil in E. lia.
    + exists r. f_equal. f_equal.
      assert (nnth (c :: r) 0 = Some c) as E0 by reflexivity.
      rewrite <- E in E0. rewrite nnth_nfirstn in E0 by lia.
      pose proof (nnth_nskipn (ser u) (path_start u) 0) as Hn. rewrite N.add_0_r in Hn. rewrite Hn in E0. congruence.
  - intros (r & E). inversion E as [E1]. unfold path_sl.
    assert (path_start u < path_end u) as L.
    { destruct (N.le_gt_cases (path_end u) (path_start u)) as [Hle|Hlt]; [|exact Hlt]. exfalso.
      replace (path_end u - path_start u) with 0 in E1 by lia. discriminate E1. }
    assert (nnth (47 :: r) 0 = Some 47) as E0 by reflexivity.
    rewrite <- E1 in E0. rewrite nnth_nfirstn in E0 by lia.
    pose proof (nnth_nskipn (ser u) (path_start u) 0) as Hn. rewrite N.add_0_r in Hn. rewrite Hn in E0. exact E0.
Qed.

Lemma path_keep_sl u u' : wf_b u = true -> wf_b u' = true -> path u' = path u -> path_sl u -> path_sl u'.
Proof.
  intros W W' E H. apply (path_sl_getter u' W'). rewrite E. apply (path_sl_getter u W). exact H.
Qed.

Lemma with_path_sl u r : path_start u <= nlen (ser u) -> path_sl (with_path u (47 :: r)).
Proof.
  intros L. unfold path_sl, with_path. cbn [ser path_start].
  rewrite nnth_app_ge by (rewrite nlen_nfirstn by exact L; lia). rewrite nlen_nfirstn by exact L. rewrite N.sub_diag. reflexivity.
Qed.

(* the path-start state for a special scheme, any context: the path is not empty *)
Lemma fixup_len st ps s2 : ps + 1 <= nlen s2 -> ps + 1 <= nlen (file_path_fixup st ps s2).
Proof.
  intros L. unfold file_path_fixup. destruct (st_is_file st); [|exact L].
  rewrite !nlen_app, nlen_nfirstn by lia. change (nlen [47]) with 1. lia.
Qed.

Lemma pps_special_nonempty dbg ctx st hh ser l s' hh' rem : st_is_special st = true ->
  (st_is_file st = false -> ends_with_byte 47 ser = false) ->
  parse_path_start dbg ctx st hh ser l = POk (s', hh', rem) -> nlen ser + 1 <= nlen s'.
Proof.
  intros Hsp He. unfold parse_path_start. destruct (inp_split_first l) as [mc rm]. rewrite Hsp.
  assert (forall X, parse_path dbg ctx st hh (nlen ser) (ser ++ [47]) X = POk (s', hh', rem) -> nlen ser + 1 <= nlen s') as Hpush.
  { intros X HX.
    destruct (parse_path_ctx_ok dbg ctx st (nlen ser) (nlen ser + 1) ltac:(lia) hh (ser ++ [47]) X
                (seg_inv_snoc (nlen ser) (nlen ser + 1) ser ltac:(lia) ltac:(lia))) as (s2 & h2 & r2 & E & A & _).
    rewrite E in HX. inversion HX; subst. apply fixup_len.
    apply (pre_len _ _ _ A). rewrite nlen_app. change (nlen [47]) with 1. lia. }
  destruct (ends_with_byte 47 ser) eqn:Ee; cbn [negb].
  - destruct (st_is_file st) eqn:Ef; [|pose proof (He eq_refl) as X; congruence].
    intros HX. apply ends_with_byte_nnth in Ee. destruct Ee as [E1 E2].
    assert (seg_inv (nlen ser) (nlen ser) ser (nlen ser)) as I0 by (unfold seg_inv; repeat split; try lia; exact E2).
    destruct (parse_path_ctx_ok dbg ctx st (nlen ser) (nlen ser) ltac:(lia) hh ser l I0) as (s2 & h2 & r2 & E & A & _).
    rewrite E in HX. inversion HX; subst. pose proof (pre_len _ _ _ A (N.le_refl _)) as L2.
    unfold file_path_fixup. rewrite Ef. rewrite !nlen_app, nlen_nfirstn by exact L2. change (nlen [47]) with 1. lia.
  - destruct mc as [c|]; [destruct (is_slash_or_bslash c)|]; apply Hpush.
Qed.

(* path_segments_mut sessions on a URL whose path starts with '/' *)
Section SessSL.
Variable dbg : bool.
Variables (ps : N) (s0 : list N).

Definition JS (x : list N) : Prop := nfirstn ps x = s0 /\ nnth x ps = Some 47.

Lemma js_len x : JS x -> ps + 1 <= nlen x.
Proof using. intros [_ H]. pose proof (nnth_lt _ _ _ H). lia. Qed.

Lemma js_app x y : JS x -> JS (x ++ y).
Proof using.
  intros I. pose proof (js_len x I) as L. destruct I as [I1 I2]. split.
  - rewrite nfirstn_app_le by lia. exact I1.
  - rewrite nnth_app_lt by lia. exact I2.
Qed.

Lemma js_trunc x n : JS x -> ps + 1 <= n -> JS (nfirstn n x).
Proof using.
  intros [I1 I2] L. split.
  - rewrite nfirstn_nfirstn by lia. exact I1.
  - rewrite nnth_nfirstn by lia. exact I2.
Qed.

Lemma js_extend_loop st segs : forall x s', psm_extend_loop dbg st ps x segs = Some s' -> JS x -> JS s'.
Proof using.
  induction segs as [|seg rest IH]; intros x s' H I; cbn [psm_extend_loop] in H.
  - inversion H; subst. exact I.
  - destruct (psm_skips seg); [eapply IH; eassumption|].
    pose proof (js_len x I) as Lx.
    set (s1 := if (ps + 1 <? nlen x) || (nlen x =? ps) then x ++ [47] else x) in *.
    assert (JS s1 /\ seg_inv ps (ps + 1) s1 (nlen s1)) as [I1 A4].
    { subst s1. destruct ((ps + 1 <? nlen x) || (nlen x =? ps)) eqn:Ec.
      - split; [apply js_app; exact I | apply seg_inv_snoc; lia].
      - assert (nlen x = ps + 1) as L by lia. split; [exact I|].
        unfold seg_inv. rewrite L. replace (ps + 1 - 1) with ps by lia. repeat split; try lia. exact (proj2 I). }
    destruct (parse_path_ctx_ok dbg CPathSegmentSetter st ps (ps + 1) ltac:(lia) true s1 seg A4) as (s2 & hh' & rem & E & Ha & _).
    rewrite E in H. cbn [unpres bindo] in H. eapply IH; [exact H|].
    destruct (fixup_keeps st ps s1 s2 Ha (js_len s1 I1) (proj2 I1)) as (F1 & F2 & F3).
    split; [|exact F3]. unfold agree_pre in F1. rewrite F1. exact (proj1 I1).
Qed.
End SessSL.

Lemma session_sl dbg u ops u' : wf_b u = true ->
  byte_eqb (ser u) (scheme_end u + 1) 47 = true -> path_sl u ->
  path_segments_session dbg u ops = Some (u', SOk) ->
  exists r, u' = with_path u (47 :: r).
Proof.
  intros W Hsl Hnb H. pose proof (path_sl_nonempty u W Hnb) as Lne. unfold path_sl in Hnb.
  destruct (wf_ps_le_path_end u W) as [B5 B6]. pose proof (wf_se_lt_ps u W) as B0.
  set (pe := path_end u) in *. set (ps := path_start u) in *.
  set (s0 := nfirstn ps (ser u)).
  assert (nlen s0 = ps) as Ls0 by (apply nlen_nfirstn; lia).
  set (x0 := nfirstn pe (ser u)).
  assert (nlen x0 = pe) as Lx0 by (apply nlen_nfirstn; exact B6).
  assert (JS ps s0 x0) as I0.
  { split.
    - unfold x0, s0. apply nfirstn_nfirstn. exact B5.
    - unfold x0. rewrite nnth_nfirstn by lia. exact Hnb. }
  (* the scheme type read from a serialization that keeps the front *)
  assert (forall x, JS ps s0 x -> u_scheme_type (set_ser u x) = Some (scheme_type_of (b_scheme u))) as Hst.
  { intros x Ix. pose proof (js_len ps s0 x Ix) as Lx. rewrite scheme_type_set_ser by lia.
    destruct Ix as [J1 _]. unfold b_scheme. f_equal. f_equal.
    rewrite <- (nfirstn_nfirstn (scheme_end u) ps x) by lia. rewrite J1. unfold s0. apply nfirstn_nfirstn. lia. }
  unfold path_segments_session, path_segments_mut in H.
  rewrite (cannot_be_a_base_eval u W) in H. cbn [bindo] in H.
  rewrite Hsl in H. cbn [negb] in H.
  unfold psm_new in H. rewrite (take_after_path_eval u W) in H. cbn [bindo] in H. fold pe x0 in H.
  destruct (u_scheme_type (set_ser u x0)) as [st|] eqn:Est; cbn [bindo] in H; [|discriminate].
  match type of H with bindo (bindo (bindo ?c _) _) _ = _ => destruct c as [[]|]; cbn [bindo] in H; [|discriminate] end.
  cbn [ser set_ser path_start] in H. fold ps in H. rewrite Lx0 in H.
  set (p0 := mkPsm (set_ser u x0) (ps + 1) (nskipn pe (ser u)) pe) in H.
  destruct (psm_run dbg p0 ops) as [p1|] eqn:Erun; cbn [bindo] in H; [|discriminate].
  assert (forall ops p q, psm_run dbg p ops = Some q ->
            psm_url p = set_ser u (ser (psm_url p)) -> after_first_slash p = ps + 1 ->
            psm_after_path p = nskipn pe (ser u) -> psm_old_pos p = pe -> JS ps s0 (ser (psm_url p)) ->
            psm_url q = set_ser u (ser (psm_url q)) /\ psm_after_path q = nskipn pe (ser u) /\ psm_old_pos q = pe
            /\ JS ps s0 (ser (psm_url q))) as Hrun.
  { clear - Ls0 Hst. intros ops0. induction ops0 as [|o rest IH]; intros p q Hr E1 E2 E3 E4 I.
    - cbn in Hr. inversion Hr; subst. tauto.
    - cbn [psm_run] in Hr. destruct (psm_apply dbg p o) as [p'|] eqn:Eo; cbn [bindo] in Hr; [|discriminate].
      assert (psm_url p' = set_ser u (ser (psm_url p')) /\ after_first_slash p' = ps + 1
              /\ psm_after_path p' = nskipn pe (ser u) /\ psm_old_pos p' = pe /\ JS ps s0 (ser (psm_url p'))) as (F1 & F2 & F3 & F4 & F5).
      { assert (forall x, JS ps s0 x ->
                  let r := psm_with p x in
                  psm_url r = set_ser u (ser (psm_url r)) /\ after_first_slash r = ps + 1
                  /\ psm_after_path r = nskipn pe (ser u) /\ psm_old_pos r = pe /\ JS ps s0 (ser (psm_url r))) as Hw.
        { intros x Ix. unfold psm_with. cbn [psm_url after_first_slash psm_after_path psm_old_pos ser set_ser].
          splits; try assumption. rewrite E1. reflexivity. }
        assert (forall segs s', psm_extend dbg p segs = Some s' ->
                  psm_url s' = set_ser u (ser (psm_url s')) /\ after_first_slash s' = ps + 1
                  /\ psm_after_path s' = nskipn pe (ser u) /\ psm_old_pos s' = pe /\ JS ps s0 (ser (psm_url s'))) as Hext.
        { intros segs s' Es. unfold psm_extend in Es. rewrite E1 in Es. rewrite (Hst _ I) in Es. cbn [bindo] in Es.
          cbn [path_start set_ser ser] in Es. fold ps in Es.
          destruct (psm_extend_loop dbg (scheme_type_of (b_scheme u)) ps (ser (psm_url p)) segs) as [s1|] eqn:El;
            cbn [bindo] in Es; [|discriminate].
          inversion Es; subst s'. apply Hw.
          exact (js_extend_loop dbg ps s0 _ _ _ _ El I). }
        destruct o; cbn [psm_apply] in Eo.
        - inversion Eo; subst p'. unfold psm_clear. rewrite E2. apply Hw. unfold truncate.
          apply (js_trunc ps s0); [exact I | lia].
        - inversion Eo; subst p'. unfold psm_pop_if_empty. rewrite E2.
          destruct (nlen (ser (psm_url p)) <=? ps + 1) eqn:El; [tauto|].
          destruct (ends_with_byte 47 (nskipn (ps + 1) (ser (psm_url p)))); [|tauto].
          apply Hw. apply (js_trunc ps s0); [exact I | lia].
        - inversion Eo; subst p'. unfold psm_pop. rewrite E2.
          destruct (nlen (ser (psm_url p)) <=? ps + 1) eqn:El; [tauto|].
          apply Hw. unfold truncate. apply (js_trunc ps s0); [exact I | lia].
        - unfold psm_push in Eo. exact (Hext _ _ Eo).
        - exact (Hext _ _ Eo). }
      eapply IH; eassumption. }
  destruct (Hrun ops p0 p1 Erun eq_refl eq_refl eq_refl eq_refl I0) as (R1 & R3 & R4 & (I1 & I2)).
  destruct (psm_close dbg p1) as [uf|] eqn:Ecl; cbn [bindo] in H; [|discriminate].
  inversion H; subst uf. clear H.
  unfold psm_close, restore_after_path in Ecl. rewrite R3, R4 in Ecl. rewrite R1 in Ecl.
  cbn [ser set_ser query_start fragment_start] in Ecl.
  set (x1 := ser (psm_url p1)) in *.
  assert (match query_start u with Some i => pe <= i | None => True end) as Gq.
  { unfold pe, path_end. destruct (query_start u); [lia | exact I]. }
  assert (match fragment_start u with Some i => pe <= i | None => True end) as Gf.
  { pose proof (wf_qf_facts u W) as QF. pose proof (qf_qf QF) as Q3. pose proof (qf_f QF) as Q2. unfold pe, path_end.
    destruct (query_start u), (fragment_start u); try exact I; lia. }
  rewrite !adjust_opt_ok in Ecl by assumption. cbn [bindo] in Ecl.
  set (P := nskipn ps x1).
  assert (x1 = s0 ++ P) as Ex1 by (unfold P; rewrite <- I1; symmetry; apply nfirstn_nskipn).
  assert (exists r, P = 47 :: r) as (r & EP).
  { pose proof (nnth_nskipn x1 ps 0) as Hn. rewrite N.add_0_r in Hn. fold P in Hn. rewrite I2 in Hn.
    destruct P as [|c r]; [discriminate Hn|]. exists r. cbn in Hn. congruence. }
  exists r. rewrite <- EP.
  inversion Ecl. unfold with_path. fold pe ps. rewrite Ex1. rewrite nlen_app, Ls0. rewrite <- app_assoc. reflexivity.
Qed.

(* one step outside excl03 *)
Section Steps.
Variable dbg : bool.
Variable hp hpo : list N -> result host.
Variable hd : host -> list N.
Hypothesis HW : HostWf hp hpo hd.

Lemma set_path_sl u p u' : wfh u -> AS u -> spb u = true -> usv_list p -> auth_end_ok u ->
  set_path dbg u p = Some u' -> path_sl u'.
Proof using.
  intros [W HT] A Hs Hp Hx H. destruct (special_layout u W A Hs) as (Ha & Hsl & Ho).
  destruct (set_path_eval dbg u p u' W Hsl Hp Hx H) as (P & hh & rem & -> & (HP1 & HP2) & Epp).
  pose proof (path_start_le_len u W) as PL.
  assert (P <> []) as Hne.
  { intros ->. rewrite app_nil_r in Epp.
    pose proof (pps_special_nonempty dbg CSetter _ true _ p _ hh rem Hs (Hx Hs) Epp) as L. lia. }
  destruct HP2 as [->|(r & ->)]; [contradiction|]. exact (with_path_sl u r PL).
Qed.

Theorem sp_step u o u' : IpDisp hd -> wfh u -> AS u -> op_args_ok o -> excl03 u o u' = false ->
  apply_op dbg hp hpo hd u o = Some u' -> SP u -> SP u'.
Proof using HW.
  intros HIP K A Ha G H S Hs'. pose proof K as [W HT].
  pose proof (spb_back dbg hp hpo hd HW u o u' HIP K Ha G H Hs') as Hs. specialize (S Hs).
  destruct (step_cases dbg hp hpo hd HW u o u' HIP K Ha G H) as [->|[[W' _] k]]; [exact S|].
  destruct (special_layout u W A Hs) as (Hau & Hsl & Ho).
  pose proof (path_start_le_len u W) as PL.
  assert (path u' = path u -> path_sl u') as KP by (intros E; exact (path_keep_sl u u' W W' E S)).
  destruct k as [[_ Ep|_ [(p & Hp & Hx & E)|(ops & E)]|sch _ _ _ Ep _|new _ _ Ep _ _ _]|[sch h _ _ _ Ep _ _|_ _ _ _ Ep]].
  - exact (KP (Ep Ho)).
  - exact (set_path_sl u p u' K A Hs Hp Hx E).
  - destruct (session_sl dbg u ops u' W Hsl S E) as (r & ->). exact (with_path_sl u r PL).
  - exact (KP Ep).
  - exact (KP Ep).
  - exact (KP Ep).
  - apply KP, Ep. unfold path_empty_at_end. apply N.eqb_neq. pose proof (nnth_lt _ _ _ S). lia.
Qed.
End Steps.

(* inv03 with the path clause *)
Definition inv03s (u : url) : Prop := inv03 u /\ SP u.

Section Inv.
Variable dbg : bool.
Variable hp hpo : list N -> result host.
Variable hd : host -> list N.
Hypothesis HW : HostWf hp hpo hd.

Theorem parse_url_inv03s ovr base input u :
  match base with Some b => inv03s b | None => True end ->
  parse_url dbg hp hpo hd ovr base input = POk u -> inv03s u.
Proof using HW.
  intros Hb Hp. split.
  - apply (parse_url_inv03 dbg hp hpo hd ovr base input u HW); [|exact Hp].
    destruct base as [b|]; [exact (proj1 Hb) | exact I].
  - apply (parse_url_sp_inv dbg hp hpo hd ovr base input u HW); [|exact Hp].
    destruct base as [b|]; [exact Hb | exact I].
Qed.

Hypothesis HNE : NoEmpty hp.
Hypothesis HIPW : IpWf hd.

Theorem inv03s_step u o u' : inv03s u -> op_args_ok o -> known03k u o u' = false ->
  apply_op dbg hp hpo hd u o = Some u' -> inv03s u'.
Proof using HW HNE HIPW.
  apply (inv03_and_step dbg hp hpo hd HW HNE HIPW SP). intros u0 o0 u0' Iu _.
  exact (sp_step dbg hp hpo hd HW u0 o0 u0' (IpWf_IpDisp hd HIPW) (proj1 Iu) (proj1 (proj2 Iu))).
Qed.
End Inv.
