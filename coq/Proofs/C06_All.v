(* Proofs/C06_All.v - the assembly: a reachability relation ReachC6 (C02's ReachC2 - parse of a non-file input,
   tail joins, the ten canonical setters / quirks wrappers, query_pairs_mut sessions - extended by set_path and
   set_host(Some) steps on URLs with an authority), every record of which is Canon (C02), hence wfh and
   auth_end_ok; and for every canonical record and every call of set_fragment / set_query / set_port /
   set_password / set_username / set_path / set_host(Some): the result is canonical again, the frame condition,
   get-after-set and - for arguments in the stated classes - whole-URL parser agreement. *)
From Coq Require Import String.
From RU Require Import Proofs.C15_Ser.
From RU Require Import Base.Prelude Base.Utf8 Base.Utf8Facts Base.Outcome_c15 Model.AsciiSet Gen.Tables
  Model.PercentEncoding Model.HostT Model.UrlRecord Model.Parser Model.Setters Model.WF Model.FormUrlencoded
  Model.QueryPairs
  Proofs.ListN Proofs.C03_WF Proofs.C06_List Proofs.C06_WFI Proofs.C06_Tail Proofs.C06_Steps Proofs.C06_Suffix
  Proofs.C06_Front Proofs.C06_Atomic Proofs.C06_FragQuery Proofs.C06_Port Proofs.C06_Cred Proofs.C06_Scheme
  Proofs.C06_HostNone Proofs.C06_Host Proofs.C06_PathParser Proofs.C06_Path Proofs.C06_Segments Proofs.C06_PathNoAuth
  Proofs.C06_Main Proofs.C03_ReachParts Proofs.C03_ReachHost Proofs.C06_Quirks
  Proofs.C14_Set Proofs.C02_Enc Proofs.C02_Parts Proofs.C02_Opaque Proofs.C02_Path Proofs.C02_PathL1 Proofs.C02_Reach
  Proofs.C02_AuthParts Proofs.C02_Auth Proofs.C02_AuthWf Proofs.C02_PathSp Proofs.C02_AuthSp Proofs.C02_AuthMain
  Proofs.C02_Hist Proofs.C02_SetQF Proofs.C02_Canon Proofs.C02_SetPort Proofs.C02_JoinTail Proofs.C02_ReachPartial
  Proofs.C02_Form Proofs.C02_SetCred Proofs.C02_SetCredCanon Proofs.C02_QPort Proofs.C02_Reach3
  Proofs.C06_Agree Proofs.C06_AgreeUrl Proofs.C06_Splice Proofs.C06_SpliceAuth Proofs.C06_SpliceCred
  Proofs.C06_SplicePath Proofs.C06_SpliceHost.
Open Scope N_scope.
Open Scope list_scope.

Section All.
Variable dbg : bool.
Variable hp hpo : list N -> result host.
Variable hd : host -> list N.
Hypothesis HRT : HostRT hp hpo hd.
Hypothesis HAb : host_above hp hpo hd.

Notation Canon := (Canon hp hpo hd).

Inductive ReachC6 : url -> Prop :=
| RC6_parse ovr input u :
    usv_list input -> nonfile_input input = true -> (ovr = None \/ special_input input = false) ->
    parse_url dbg hp hpo hd ovr None input = POk u -> ReachC6 u
| RC6_join ovr b input u :
    ReachC6 b -> usv_list input -> tail_ref input = true ->
    (ovr = None \/ st_is_special (scheme_type_of (b_scheme b)) = false) ->
    parse_url dbg hp hpo hd ovr (Some b) input = POk u -> ReachC6 u
| RC6_step u o u' :
    ReachC6 u -> canon_op o = true -> op_args_ok o -> apply_op dbg hp hpo hd u o = Some u' ->
    nlen (ser u') <= U32_MAX_P -> ReachC6 u'
| RC6_qpm u ops u' :
    ReachC6 u -> Forall op_ok ops -> query_pairs_session dbg u ops = Some u' ->
    nlen (ser u') <= U32_MAX_P -> ReachC6 u'
| RC6_path u x u' :
    ReachC6 u -> has_authority_b u = true -> usv_list x -> forallb no_qh x = true -> path_arg_ok (sp_of u) x ->
    set_path dbg u x = Some u' -> nlen (ser u') <= U32_MAX_P -> ReachC6 u'
| RC6_host u x u' :
    ReachC6 u -> has_authority_b u = true -> forallb (hostarg (sp_of u)) x = true ->
    set_host dbg hp hpo hd u (Some x) = Some (u', SOk) -> empty_host_ok u u' ->
    nlen (ser u') <= U32_MAX_P -> ReachC6 u'.

Lemma ReachC2_C6 u : ReachC2 dbg hp hpo hd u -> ReachC6 u.
Proof.
  induction 1 as [ovr input u Hu Hn Hov Hp | ovr b input u Hr IH Hu Ht Hov Hp | u o u' Hr IH Ht Ha Ho Hb
                 | u ops u' Hr IH Hops Hs Hb].
  - exact (RC6_parse ovr input u Hu Hn Hov Hp).
  - exact (RC6_join ovr b input u IH Hu Ht Hov Hp).
  - exact (RC6_step u o u' IH Ht Ha Ho Hb).
  - exact (RC6_qpm u ops u' IH Hops Hs Hb).
Qed.

(* one step of a canonical operation keeps Canon (the case analysis of C02_Reach3.ReachC2_Canon) *)
Lemma canon_step u o u' : Canon u -> canon_op o = true -> op_args_ok o -> apply_op dbg hp hpo hd u o = Some u' ->
  nlen (ser u') <= U32_MAX_P -> Canon u'.
Proof.
  intros IH Ht Ha Ho Hb.
  destruct o; try discriminate Ht; cbn [apply_op op_args_ok] in *.
  - exact (set_fragment_Canon dbg hp hpo hd HRT u f u' IH Ha Ho Hb).
  - exact (set_query_Canon dbg hp hpo hd HRT u q u' IH Ha Ho Hb).
  - destruct (option_map_fst_some _ _ Ho) as [s Es].
    exact (set_port_Canon dbg hp hpo hd u p u' s IH Ha Es Hb).
  - destruct (option_map_fst_some _ _ Ho) as [s Es].
    exact (set_password_Canon dbg hp hpo hd u p u' s IH Ha Es Hb).
  - destruct (option_map_fst_some _ _ Ho) as [s0 Es].
    exact (set_username_Canon dbg hp hpo hd u s u' s0 IH Ha Es Hb).
  - destruct (option_map_fst_some _ _ Ho) as [s0 Es]. unfold q_set_username in Es.
    exact (set_username_Canon dbg hp hpo hd u s u' s0 IH Ha Es Hb).
  - destruct (option_map_fst_some _ _ Ho) as [s0 Es]. unfold q_set_password in Es.
    apply (set_password_Canon dbg hp hpo hd u _ u' s0 IH) in Es; [exact Es | | exact Hb].
    destruct s; [exact I | exact Ha].
  - destruct (option_map_fst_some _ _ Ho) as [s0 Es].
    exact (q_set_port_Canon dbg hp hpo hd u s u' s0 IH Es Hb).
  - unfold q_set_search in Ho. apply (set_query_Canon dbg hp hpo hd HRT u _ u' IH) in Ho; [exact Ho | | exact Hb].
    destruct s as [|c r]; [exact I|]. assert (usv_list r) as Hr' by (apply usv_cons in Ha; tauto).
    destruct c as [|pp]; [exact Ha|]. do 7 (try (destruct pp as [pp|pp|]; try exact Ha)). exact Hr'.
  - unfold q_set_hash in Ho. apply (set_fragment_Canon dbg hp hpo hd HRT u _ u' IH) in Ho; [exact Ho | | exact Hb].
    destruct s as [|c r]; [exact I|]. assert (usv_list r) as Hr' by (apply usv_cons in Ha; tauto).
    destruct c as [|pp]; [exact Ha|]. do 7 (try (destruct pp as [pp|pp|]; try exact Ha)). exact Hr'.
Qed.

Theorem ReachC6_Canon u : ReachC6 u -> Canon u.
Proof.
  induction 1 as [ovr input u Hu Hn Hov Hp | ovr b input u Hr IH Hu Ht Hov Hp | u o u' Hr IH Ht Ha Ho Hb
                 | u ops u' Hr IH Hops Hs Hb | u x u' Hr IH Hau Hx Hq Hpa E Hb | u x u' Hr IH Hau Hxa E Hemp Hb].
  - exact (parse_Canon dbg hp hpo hd HRT ovr input u HAb Hu Hn Hov Hp).
  - exact (join_tail_Canon dbg hp hpo hd HRT ovr b input u IH Hu Ht Hov Hp).
  - exact (canon_step u o u' IH Ht Ha Ho Hb).
  - exact (qpm_Canon dbg hp hpo hd HRT u ops u' IH Hops Hs Hb).
  - exact (set_path_Canon dbg hp hpo hd HRT u x u' IH Hau Hx Hq Hpa E Hb).
  - exact (set_host_Canon dbg hp hpo hd HRT HAb u x u' IH Hau Hxa E Hemp Hb).
Qed.

(* a canonical record satisfies the invariant of the C06 theorems and the premise of the path theorems *)
Lemma auth_host_text_ok st sch ui h pt p q f : auth_ok hp hpo hd st sch ui h pt p q f ->
  C06_Suffix.host_text_ok (auth_url hd sch ui h pt p q f).
Proof.
  intros K Hh. unfold has_host in Hh. assert (h <> HDomain []) as Hne by (intros ->; discriminate Hh).
  destruct (hd_head hp hpo hd st h (ak_h _ _ _ _ _ _ _ _ _ _ _ K) Hne) as (c & r & Ehd & H58 & H64).
  rewrite (auth_url_hpu hd). unfold hp_url, qf_url. cbn [host_start host_end ser]. rewrite (nlen_app _ (hd h)).
  split; [rewrite Ehd, nlen_cons; lia|].
  rewrite <- !(app_assoc ((sch ++ s_css) ++ ui_text ui)). rewrite <- !(app_assoc (hd h)). rewrite Ehd. cbn [app].
  rewrite !(byte_eqb_head _ _ _ _ eq_refl). cbn [head_is]. split; apply N.eqb_neq; assumption.
Qed.

Lemma Canon_host_text_ok u : Canon u -> C06_Suffix.host_text_ok u.
Proof.
  intros [sch P q f K | sch segs last q f K | sch ui h pt p q f K | sch ui h pt p q f K Kp].
  - unfold C06_Suffix.host_text_ok, has_host. cbn [hosti opaque_url]. discriminate.
  - unfold C06_Suffix.host_text_ok, has_host. cbn [hosti noauth_url]. discriminate.
  - exact (auth_host_text_ok _ _ _ _ _ _ _ _ K).
  - exact (auth_host_text_ok _ _ _ _ _ _ _ _ K).
Qed.

Theorem Canon_wfh u : Canon u -> wfh u.
Proof. intros C. split; [exact (proj1 (proj2 (Canon_fixpoint dbg hp hpo hd HRT u C))) | exact (Canon_host_text_ok u C)]. Qed.

Theorem Canon_auth_end_ok u : Canon u -> auth_end_ok u.
Proof.
  intros [sch P q f K | sch segs last q f K | sch ui h pt p q f K | sch ui h pt p q f K Kp].
  - unfold auth_end_ok. cbn [scheme_end ser opaque_url]. unfold opaque_ser, opaque_pre. rewrite <- !app_assoc. rewrite nfirstn_app_len.
    rewrite (ok_ns _ _ _ _ K). discriminate.
  - unfold auth_end_ok. cbn [scheme_end ser noauth_url]. unfold noauth_ser, noauth_pre. rewrite <- !app_assoc. rewrite nfirstn_app_len.
    rewrite (nk_ns _ _ _ _ _ K). discriminate.
  - exact (auth_end_ok_auth hp hpo hd STNotSpecial sch ui h pt p q f K eq_refl).
  - exact (auth_end_ok_auth hp hpo hd STSpecialNotFile sch ui h pt p q f K eq_refl).
Qed.

(* every canonical record, every call *)
Let HF : host_fns_ok hp hpo hd := HostWf_fns_ok hp hpo hd (HostRT_HostWf hp hpo hd HRT).

(* set_fragment(Some x) *)
Theorem all_set_fragment u x u' : Canon u -> usv_list x -> set_fragment dbg u (Some x) = Some u' -> nlen (ser u') <= U32_MAX_P ->
  Canon u' /\ unchanged_but_fragment dbg u u' /\ path u' = path u
  /\ fragment dbg u' = Some (Some (tnl_text T_FRAGMENT x))
  /\ (first_ok (rev (35 :: x)) -> parse_url dbg hp hpo hd None None (splice_fragment u x) = POk u').
Proof.
  intros C Hx E Hb. pose proof (Canon_wfh u C) as Hw.
  destruct (frame_all dbg hp hpo hd u Hw) as (F1 & _). destruct (get_all dbg hd u Hw) as (G1 & _).
  destruct (F1 (Some x) u' E) as [A B].
  split; [exact (set_fragment_Canon dbg hp hpo hd HRT u (Some x) u' C Hx E Hb)|].
  split; [exact A|]. split; [exact B|]. split; [exact (G1 (Some x) u' E)|].
  intros Hl. exact (splice_agreement_set_fragment dbg hp hpo hd HRT u x u' C Hx Hl E Hb).
Qed.

(* set_query(Some x) *)
Theorem all_set_query u x u' : Canon u -> usv_list x -> set_query dbg u (Some x) = Some u' -> nlen (ser u') <= U32_MAX_P ->
  Canon u' /\ unchanged_but_query dbg u u' /\ path u' = path u
  /\ query dbg u' = Some (Some (query_text u x))
  /\ (no_hash x = true -> (fragment_start u = None -> first_ok (rev (63 :: x))) ->
      parse_url dbg hp hpo hd None None (splice_query u x) = POk u').
Proof.
  intros C Hx E Hb. pose proof (Canon_wfh u C) as Hw.
  destruct (frame_all dbg hp hpo hd u Hw) as (_ & F2 & _). destruct (get_all dbg hd u Hw) as (_ & G2 & _).
  destruct (F2 (Some x) u' Hx E) as [A B].
  split; [exact (set_query_Canon dbg hp hpo hd HRT u (Some x) u' C Hx E Hb)|].
  split; [exact A|]. split; [exact B|]. split; [exact (G2 (Some x) u' Hx E)|].
  intros Hh Hl. exact (splice_agreement_set_query dbg hp hpo hd HRT u x u' C Hx Hh Hl E Hb).
Qed.

(* set_port(Some n) *)
Theorem all_set_port u n u' : Canon u -> n <= 65535 -> set_port dbg u (Some n) = Some (u', SOk) -> nlen (ser u') <= U32_MAX_P ->
  Canon u' /\ same_ids dbg u u' /\ same_back dbg u u'
  /\ (exists sch, scheme u = Some sch /\ port u' = norm_port sch (Some n))
  /\ parse_url dbg hp hpo hd None None (splice_port u n) = POk u'.
Proof.
  intros C Hn E Hb. pose proof (Canon_wfh u C) as Hw.
  destruct (frame_all dbg hp hpo hd u Hw) as (_ & _ & F3 & _). destruct (get_all dbg hd u Hw) as (_ & _ & G3 & _).
  destruct (F3 (Some n) u' Hn E) as [A B].
  split; [exact (set_port_Canon dbg hp hpo hd u (Some n) u' SOk C Hn E Hb)|].
  split; [exact A|]. split; [exact B|]. split; [exact (G3 (Some n) u' Hn E)|].
  exact (splice_agreement_set_port dbg hp hpo hd HRT u n u' C Hn E Hb).
Qed.

(* set_password(Some y) *)
Theorem all_set_password u y u' : Canon u -> usv_list y -> set_password dbg u (Some y) = Some (u', SOk) -> nlen (ser u') <= U32_MAX_P ->
  Canon u'
  /\ (scheme u' = scheme u /\ username dbg u' = username dbg u /\ host_str u' = host_str u /\ port u' = port u /\ same_back dbg u u')
  /\ password dbg u' = Some (match y with c :: r => Some (userinfo_enc (c :: r)) | [] => None end)
  /\ (y <> [] -> forallb (plainc (sp_of u)) y = true -> parse_url dbg hp hpo hd None None (splice_password u y) = POk u').
Proof.
  intros C Hy E Hb. pose proof (Canon_wfh u C) as Hw.
  destruct (frame_all dbg hp hpo hd u Hw) as (_ & _ & _ & F4 & _). destruct (get_all dbg hd u Hw) as (_ & _ & _ & G4 & _).
  split; [exact (set_password_Canon dbg hp hpo hd u (Some y) u' SOk C Hy E Hb)|].
  split; [exact (F4 (Some y) u' E)|]. split; [exact (G4 (Some y) u' E)|].
  intros Hne Hpl. exact (splice_agreement_set_password dbg hp hpo hd HRT u y u' C Hy Hne Hpl E Hb).
Qed.

(* set_username(x) *)
Theorem all_set_username u x u' : Canon u -> usv_list x -> set_username dbg u x = Some (u', SOk) -> nlen (ser u') <= U32_MAX_P ->
  Canon u'
  /\ (scheme u' = scheme u /\ password dbg u' = password dbg u /\ host_str u' = host_str u /\ port u' = port u /\ same_back dbg u u')
  /\ (exists cur, username dbg u = Some cur
        /\ username dbg u' = Some (if list_eqb cur (utf8_encode x) then cur else userinfo_enc x))
  /\ (forallb (fun c => plainc (sp_of u) c && negb (c =? 58)) x = true ->
      parse_url dbg hp hpo hd None None (splice_username u x) = POk u').
Proof.
  intros C Hx E Hb. pose proof (Canon_wfh u C) as Hw.
  destruct (frame_all dbg hp hpo hd u Hw) as (_ & _ & _ & _ & F5 & _). destruct (get_all dbg hd u Hw) as (_ & _ & _ & _ & G5 & _).
  split; [exact (set_username_Canon dbg hp hpo hd u x u' SOk C Hx E Hb)|].
  split; [exact (F5 x u' E)|]. split; [exact (G5 x u' E)|].
  intros Hpl. exact (splice_agreement_set_username dbg hp hpo hd HRT u x u' C Hx Hpl E Hb).
Qed.

(* set_path(x) on a URL with an authority *)
Theorem all_set_path u x u' : Canon u -> has_authority_b u = true -> usv_list x -> set_path dbg u x = Some u' ->
  nlen (ser u') <= U32_MAX_P ->
  wfh u' /\ same_front dbg u u' /\ query dbg u' = query dbg u /\ fragment dbg u' = fragment dbg u
  /\ (exists P, path u' = Some P /\ new_path_ok P)
  /\ (forallb no_qh x = true -> path_arg_ok (sp_of u) x ->
      Canon u'
      /\ ((query_start u = None -> fragment_start u = None -> first_ok (rev x)) ->
          parse_url dbg hp hpo hd None None (splice_path u x) = POk u')).
Proof.
  intros C Hau Hx E Hb. pose proof (Canon_wfh u C) as Hw.
  destruct (path_all dbg u Hw Hau) as (P1 & _).
  destruct (P1 x u' Hx (Canon_auth_end_ok u C) E) as (W' & A & B & D & (P & HP1 & HP2 & _)).
  split; [exact W'|]. split; [exact A|]. split; [exact B|]. split; [exact D|]. split; [exists P; split; assumption|].
  intros Hq Hpa. split; [exact (set_path_Canon dbg hp hpo hd HRT u x u' C Hau Hx Hq Hpa E Hb)|].
  intros Hl. exact (splice_agreement_set_path dbg hp hpo hd HRT u x u' C Hau Hx Hq Hpa Hl E Hb).
Qed.

Lemma hostarg_arg_text sp x : forallb (hostarg sp) x = true -> set_host_arg_text x = Some x.
Proof.
  intros H. unfold set_host_arg_text. rewrite (not_bracketed sp x H).
  unfold find_byte. rewrite (find_byte_aux_none 58 x 0 (hostarg_58 sp x H)). reflexivity.
Qed.

(* set_host(Some x) on a URL with an authority *)
Theorem all_set_host u x u' : Canon u -> has_authority_b u = true -> forallb (hostarg (sp_of u)) x = true ->
  set_host dbg hp hpo hd u (Some x) = Some (u', SOk) -> empty_host_ok u u' -> nlen (ser u') <= U32_MAX_P ->
  Canon u'
  /\ (exists h, (if sp_of u then hp x else hpo x) = Ok h /\ host_set_post dbg hd u u' h)
  /\ (usv_list x -> (nskipn (host_end u) (ser u) = [] -> first_ok (rev x)) ->
      parse_url dbg hp hpo hd None None (splice_host u x) = POk u').
Proof.
  intros C Hau Hxa E Hemp Hb. pose proof (Canon_wfh u C) as Hw.
  split; [exact (set_host_Canon dbg hp hpo hd HRT HAb u x u' C Hau Hxa E Hemp Hb)|].
  split; [|intros Hx Hl; exact (splice_agreement_set_host dbg hp hpo hd HRT HAb u x u' C Hau Hx Hxa Hl E Hemp Hb)].
  destruct (set_host_some_post dbg hp hpo hd HF u x u' (proj1 Hw)) as (sch0 & t & h0 & Hs & Ht & Hh & Hpost);
    [intros Hna; rewrite Hna in Hau; discriminate Hau | exact E |].
  rewrite (hostarg_arg_text _ x Hxa) in Ht. inversion Ht; subst t.
  assert (sp_of u = st_is_special (scheme_type_of sch0)) as Esp.
  { unfold sp_of. unfold scheme, u_slice_to, slice_to_o in Hs. destruct (scheme_end u <=? nlen (ser u)); [|discriminate Hs].
    inversion Hs. reflexivity. }
  exists h0. rewrite Esp. split; [exact Hh|]. 
  (* the premise of the post-condition: an empty new host means no port (empty_host_ok); the host kind of the
     result is the kind of h0 in every case - read off the canonical record *)
  destruct (Canon_auth_cases hp hpo hd u C Hau) as (st & sch & ui & h & pt & p & q & f & Eu & K & Hc).
  subst u. rewrite (sp_of_auth hp hpo hd _ _ _ _ _ _ _ _ K) in Hxa.
  destruct (set_host_auth dbg hp hpo hd HRT st sch ui h pt p q f x u' K (auth_cls_nf st p Hc) Hxa E) as (h' & Ehp & _ & Eu').
  rewrite (auth_scheme hd) in Hs. inversion Hs; subst sch0. rewrite (ak_st _ _ _ _ _ _ _ _ _ _ _ K) in Hh.
  rewrite Ehp in Hh. inversion Hh; subst h0.
  apply Hpost. intros _ Hi. subst u'. destruct (Hemp Hi) as (_ & _ & Hp0). exact Hp0.
Qed.

End All.

(* what holds of every call on a record u (all seven: result canonical again - so the statement applies along
   histories -, frame, get-after-set, and parser agreement for arguments in the stated classes) *)
Definition all_calls (dbg : bool) (hp hpo : list N -> result host) (hd : host -> list N) (u : url) : Prop :=
  (forall x u', usv_list x -> set_fragment dbg u (Some x) = Some u' -> nlen (ser u') <= U32_MAX_P ->
     Canon hp hpo hd u' /\ unchanged_but_fragment dbg u u' /\ path u' = path u
     /\ fragment dbg u' = Some (Some (tnl_text T_FRAGMENT x))
     /\ (first_ok (rev (35 :: x)) -> parse_url dbg hp hpo hd None None (splice_fragment u x) = POk u'))
  /\ (forall x u', usv_list x -> set_query dbg u (Some x) = Some u' -> nlen (ser u') <= U32_MAX_P ->
     Canon hp hpo hd u' /\ unchanged_but_query dbg u u' /\ path u' = path u
     /\ query dbg u' = Some (Some (query_text u x))
     /\ (no_hash x = true -> (fragment_start u = None -> first_ok (rev (63 :: x))) ->
         parse_url dbg hp hpo hd None None (splice_query u x) = POk u'))
  /\ (forall n u', n <= 65535 -> set_port dbg u (Some n) = Some (u', SOk) -> nlen (ser u') <= U32_MAX_P ->
     Canon hp hpo hd u' /\ same_ids dbg u u' /\ same_back dbg u u'
     /\ (exists sch, scheme u = Some sch /\ port u' = norm_port sch (Some n))
     /\ parse_url dbg hp hpo hd None None (splice_port u n) = POk u')
  /\ (forall y u', usv_list y -> set_password dbg u (Some y) = Some (u', SOk) -> nlen (ser u') <= U32_MAX_P ->
     Canon hp hpo hd u'
     /\ (scheme u' = scheme u /\ username dbg u' = username dbg u /\ host_str u' = host_str u /\ port u' = port u
         /\ same_back dbg u u')
     /\ password dbg u' = Some (match y with c :: r => Some (userinfo_enc (c :: r)) | [] => None end)
     /\ (y <> [] -> forallb (plainc (sp_of u)) y = true ->
         parse_url dbg hp hpo hd None None (splice_password u y) = POk u'))
  /\ (forall x u', usv_list x -> set_username dbg u x = Some (u', SOk) -> nlen (ser u') <= U32_MAX_P ->
     Canon hp hpo hd u'
     /\ (scheme u' = scheme u /\ password dbg u' = password dbg u /\ host_str u' = host_str u /\ port u' = port u
         /\ same_back dbg u u')
     /\ (exists cur, username dbg u = Some cur
           /\ username dbg u' = Some (if list_eqb cur (utf8_encode x) then cur else userinfo_enc x))
     /\ (forallb (fun c => plainc (sp_of u) c && negb (c =? 58)) x = true ->
         parse_url dbg hp hpo hd None None (splice_username u x) = POk u'))
  /\ (forall x u', has_authority_b u = true -> usv_list x -> set_path dbg u x = Some u' -> nlen (ser u') <= U32_MAX_P ->
     wfh u' /\ same_front dbg u u' /\ query dbg u' = query dbg u /\ fragment dbg u' = fragment dbg u
     /\ (exists P, path u' = Some P /\ new_path_ok P)
     /\ (forallb no_qh x = true -> path_arg_ok (sp_of u) x ->
         Canon hp hpo hd u'
         /\ ((query_start u = None -> fragment_start u = None -> first_ok (rev x)) ->
             parse_url dbg hp hpo hd None None (splice_path u x) = POk u')))
  /\ (forall x u', has_authority_b u = true -> forallb (hostarg (sp_of u)) x = true ->
     set_host dbg hp hpo hd u (Some x) = Some (u', SOk) -> empty_host_ok u u' -> nlen (ser u') <= U32_MAX_P ->
     Canon hp hpo hd u'
     /\ (exists h, (if sp_of u then hp x else hpo x) = Ok h /\ host_set_post dbg hd u u' h)
     /\ (usv_list x -> (nskipn (host_end u) (ser u) = [] -> first_ok (rev x)) ->
         parse_url dbg hp hpo hd None None (splice_host u x) = POk u')).

Theorem all_canon dbg hp hpo hd u : HostRT hp hpo hd -> host_above hp hpo hd -> Canon hp hpo hd u -> all_calls dbg hp hpo hd u.
Proof.
  intros HRT HAb C. unfold all_calls.
  split; [intros x u' H1 H2 H3; eapply all_set_fragment; eassumption|].
  split; [intros x u' H1 H2 H3; eapply all_set_query; eassumption|].
  split; [intros n u' H1 H2 H3; eapply all_set_port; eassumption|].
  split; [intros y u' H1 H2 H3; eapply all_set_password; eassumption|].
  split; [intros x u' H1 H2 H3; eapply all_set_username; eassumption|].
  split; [intros x u' H1 H2 H3 H4; eapply all_set_path; eassumption | intros x u' H1 H2 H3 H4 H5; eapply all_set_host; eassumption].
Qed.

(* C06 for every record of a ReachC6 history: a failing call leaves the record (atomic_all: every record), and a
   successful call in the classes above has frame, get-after-set, parser agreement, and stays in the class *)
Theorem all_reach dbg hp hpo hd u : HostRT hp hpo hd -> host_above hp hpo hd -> ReachC6 dbg hp hpo hd u ->
  Canon hp hpo hd u /\ wfh u /\ auth_end_ok u /\ all_calls dbg hp hpo hd u.
Proof.
  intros HRT HAb R. pose proof (ReachC6_Canon dbg hp hpo hd HRT HAb u R) as C.
  split; [exact C|]. split; [eapply Canon_wfh; eassumption|]. split; [exact (Canon_auth_end_ok hp hpo hd u C)|].
  exact (all_canon dbg hp hpo hd u HRT HAb C).
Qed.

(* C02's histories are among them *)
Theorem reach_c2_all dbg hp hpo hd u : HostRT hp hpo hd -> host_above hp hpo hd -> ReachC2 dbg hp hpo hd u ->
  Canon hp hpo hd u /\ wfh u /\ auth_end_ok u /\ all_calls dbg hp hpo hd u.
Proof. intros HRT HAb R. exact (all_reach dbg hp hpo hd u HRT HAb (ReachC2_C6 dbg hp hpo hd u R)). Qed.
