(* Proofs/C05_CompHist.v - the component clauses along histories of mutator calls.
   step_gate u o u' : the call is outside the known classes (computable on the records and the argument)
   and is one of the mutators that cinv_step covers (the other five get the gate False here and a gate
   of their own in step_gate2, Proofs/C05_CompReach.v); GHist: histories of gated steps.
   Start: every parse result (no base) of the opaque-input class of C02 satisfies CInv. *)
From RU Require Import Base.Prelude Base.Utf8 Base.Utf8Facts Model.AsciiSet Gen.Tables Model.PercentEncoding
  Model.HostT Model.UrlRecord Model.Parser Model.Setters Model.WF
  Proofs.ListN Proofs.C03_WF Proofs.C05_Enc Proofs.C05_Parser Proofs.C05_Setters Proofs.C05_History
  Proofs.C05_Frag Proofs.C05_Query Proofs.C05_Comp Proofs.C05_PathClean Proofs.C05_CompSteps
  Proofs.C02_Opaque
  Proofs.C06_List Proofs.C06_WFI Proofs.C06_Tail Proofs.C06_Steps Proofs.C06_Suffix
  Proofs.C06_Front Proofs.C06_Atomic Proofs.C06_FragQuery Proofs.C06_Port Proofs.C06_Cred Proofs.C06_Scheme
  Proofs.C06_HostNone Proofs.C06_Host Proofs.C06_PathParser Proofs.C06_Path Proofs.C06_Segments Proofs.C06_PathNoAuth
  Proofs.C06_Main Proofs.C06_PathMore.

Section Hist.
Variable dbg : bool.
Variable hp hpo : list N -> result host.
Variable hd : host -> list N.

Definition step_gate (u : url) (o : op) (u' : url) : Prop :=
  match o with
  | OSetFragment _ | OQHash _ => True
  | OSetQuery q => str_arg_ok q
  | OQSearch v => usv_list v
  | OSetPort p => port_arg_ok p
  | OSetPassword _ | OSetUsername _ | OSetScheme _ | OQProtocol _ | OQUsername _ | OQPassword _ => True
  | OSetHost None =>
      (* outside F-C06-5 and F-C02-2 *)
      has_host u = true -> path_empty_at_end u = false /\ path_starts_with_2slash u = false
  | OSetHost (Some _) =>
      (* outside F-C03-5 (marker) and F-C02-4 (the new host is empty while a port is stored) *)
      (forall h, host_disp_ok hd h)
      /\ (has_authority_b u = false -> path_start u = scheme_end u + 1)
      /\ (has_authority_b u = true -> hosti u' = HI_None -> port u = None)
  | OSetIpHost h =>
      host_disp_ok hd h
      /\ (has_authority_b u = false -> path_start u = scheme_end u + 1)
      /\ (has_authority_b u = true -> hi_of_host h = HI_None -> port u = None)
  | OSetPath p =>
      (* outside F-C02-3 ('?' / '#' into an opaque path) and, by path_gate, F-C02-8 / F-C03-5 *)
      usv_list p /\ auth_end_ok u /\ (is_opaque_b u = true -> forallb no_qh p = true) /\ path_gate u u'
  | OPathSegments _ | OQHost _ | OQHostname _ | OQPort _ | OQPathname _ => False   (* not admitted here; step_gate2 has their gates *)
  end.

Lemma usv_tail c (r : list N) : usv_list (c :: r) -> usv_list r.
Proof. intros H. inversion H; assumption. Qed.

Theorem cinv_step u o u' : CInv dbg u -> step_gate u o u' -> apply_op dbg hp hpo hd u o = Some u' -> CInv dbg u'.
Proof.
  intros K G H. destruct o; cbn [apply_op step_gate] in H, G;
    try (apply drop_status_some in H; destruct H as [st H]); try contradiction.
  - exact (set_fragment_cinv dbg u f u' K H).
  - exact (set_query_cinv dbg u q u' K G H).
  - destruct G as (G1 & G2 & G3 & G4). exact (set_path_cinv dbg u p u' K G1 G2 G3 G4 H).
  - exact (set_port_cinv dbg u p u' st K G H).
  - destruct h as [x|].
    + destruct G as (G1 & G2 & G3). exact (set_host_some_cinv dbg hp hpo hd u x u' st K G1 G2 G3 H).
    + exact (set_host_none_cinv dbg hp hpo hd u u' st K G H).
  - destruct G as (G1 & G2 & G3). exact (set_ip_host_cinv dbg hd u h u' st K G1 G2 G3 H).
  - exact (set_password_cinv dbg u p u' st K H).
  - exact (set_username_cinv dbg u s u' st K H).
  - exact (set_scheme_cinv dbg u s u' st K H).
  - unfold q_set_protocol in H. cbv zeta in H. eapply set_scheme_cinv; [exact K | exact H].
  - exact (set_username_cinv dbg u v u' st K H).
  - unfold q_set_password in H. eapply set_password_cinv; [exact K | exact H].
  - unfold q_set_search in H. eapply set_query_cinv; [exact K | | exact H].
    destruct v as [|c r]; [exact I|]. destruct (N.eq_dec c 63) as [->|Hc].
    + exact (usv_tail _ _ G).
    + unfold str_arg_ok. destruct c as [|q]; [exact G|]. do 6 (destruct q as [q|q|]; try exact G). contradiction.
  - unfold q_set_hash in H. eapply set_fragment_cinv; [exact K | exact H].
Qed.

(* histories of gated steps *)
Inductive GHist : url -> url -> Prop :=
| GH_refl u : GHist u u
| GH_step u o u1 u2 : step_gate u o u1 -> apply_op dbg hp hpo hd u o = Some u1 -> GHist u1 u2 -> GHist u u2.

Theorem cinv_history u u' : GHist u u' -> CInv dbg u -> CInv dbg u'.
Proof. induction 1 as [u|u o u1 u2 G H _ IH]; intros K; [exact K|]. apply IH. exact (cinv_step u o u1 K G H). Qed.

Theorem components_history u u' : GHist u u' -> CInv dbg u -> wfh u' /\ components_clean dbg u'.
Proof.
  intros Hh K. destruct (cinv_history u u' Hh K) as [[W HT] C]. split; [split; assumption|].
  exact (comp_ok_components dbg u' W C).
Qed.

(* start: parse results of the opaque-input class *)
Definition opaque_start (input : list N) : bool :=
  match parse_scheme CUrlParser (input_new_trim_c0 input) with
  | Some (sch, rem) =>
      scheme_type_eqb (scheme_type_of sch) STNotSpecial
      && match inp_split_prefix_char 47 rem with None => true | Some _ => false end
  | None => false
  end.

Lemma opaque_no_slash_path u r : wf_b u = true -> is_opaque_b u = true -> path u = Some (47 :: r) -> False.
Proof.
  intros W Ho Hp. unfold is_opaque_b in Ho. apply negb_true_iff in Ho.
  destruct (opaque_path_start u W Ho) as [Ha Eps]. rewrite (path_eval u W) in Hp. inversion Hp as [Hp1].
  unfold piece in Hp1. cbn [pidx] in Hp1.
  assert (nnth (nskipn (path_start u) (ser u)) 0 = Some 47) as Hn.
  { unfold nfirstn in Hp1. destruct (nskipn (path_start u) (ser u)) as [|c t].
    - rewrite firstn_nil in Hp1. discriminate.
    - destruct (N.to_nat _); [discriminate|]. cbn [firstn] in Hp1. inversion Hp1. reflexivity. }
  rewrite nnth_nskipn, N.add_0_r, Eps in Hn. unfold byte_eqb in Ho. rewrite Hn in Ho. discriminate.
Qed.

Theorem parse_opaque_cinv ovr input u : usv_list input -> opaque_start input = true ->
  parse_url dbg hp hpo hd ovr None input = POk u -> CInv dbg u /\ cannot_be_a_base u = Some true.
Proof.
  intros Hu Hc Hp. unfold opaque_start in Hc.
  destruct (parse_scheme CUrlParser (input_new_trim_c0 input)) as [[sch rem]|] eqn:Hs; [|discriminate].
  apply andb_true_iff in Hc. destruct Hc as [H1 H2].
  assert (scheme_type_of sch = STNotSpecial) as Hns by (destruct (scheme_type_of sch); try discriminate; reflexivity).
  destruct (inp_split_prefix_char 47 rem) eqn:H47; [discriminate|].
  destruct (parse_opaque_out dbg hp hpo hd ovr input sch rem u Hu Hs Hns H47 Hp) as (P & q & f & K & E).
  assert (wf_b u = true) as W by (rewrite E; exact (opaque_url_wf sch P q f K)).
  assert (cannot_be_a_base u = Some true) as C by (rewrite E; exact (opaque_url_cbb sch P q f K)).
  split; [|exact C].
  assert (is_opaque_b u = true) as Ho.
  { unfold is_opaque_b. pose proof C as C'. rewrite (cannot_be_a_base_eval u W) in C'. congruence. }
  pose proof Ho as Ho2. unfold is_opaque_b in Ho2. apply negb_true_iff in Ho2.
  destruct (opaque_path_start u W Ho2) as [Ha Eps]. pose proof (wf_noauth_facts u W Ha) as F.
  split; [split; [exact W|]|].
  - intros Hh. unfold has_host in Hh. rewrite (nf_host F) in Hh. discriminate.
  - split; [|split; [|split; [|split]]].
    + intros un Hun. rewrite (username_eval dbg u W) in Hun. inversion Hun as [Hx]. unfold piece. cbn [pidx].
      rewrite Ha, (nf_ue F), N.sub_diag. apply free_nil.
    + intros pw Hpw. rewrite (password_piece dbg u W) in Hpw. unfold has_password_b in Hpw. rewrite Ha in Hpw. discriminate.
    + intros p r Hpp Hr. subst p. destruct (opaque_no_slash_path u r W Ho Hpp).
    + intros q0 Hq. apply comp_clean_free.
      exact (query_oku_query dbg u q0 (parse_url_query dbg hp hpo hd ovr None input u I Hp) Hq).
    + intros f0 Hf. apply comp_clean_free.
      exact (frag_oku_fragment dbg u f0 (parse_url_frag dbg hp hpo hd ovr None input u Hp) Hf).
Qed.

End Hist.
