(* Proofs/C01_EqAuth.v - C01 equivalence, class "scheme://authority...": non-special scheme, no base,
   "//" after the scheme: [userinfo@]host[:port][/path][?query][#fragment].  The Standard's authority,
   host, port, path start states (Proofs/C01_EqAuthSpec.v) against parse_userinfo / parse_host_and_port /
   parse_port / parse_path_start (Proofs/C01_EqAuthModel.v); the host functions are abstract: hp, hpo, hd on the
   model's side (Host::parse, Host::parse_opaque, Display), shp, shs on the Standard's (host parser, host serializer);
   hpo / hd and shp / shs are related on the one string they are applied to (`host_agree`). *)
From RU Require Import Base.Prelude Base.Utf8 Gen.Tables Model.HostT Model.UrlRecord Model.Parser Model.Setters
  Model.WF Spec.Whatwg Proofs.ListN Proofs.C02_Parts Proofs.C02_Opaque Proofs.C03_WF
  Proofs.C01_Tables Proofs.C08_Input Proofs.C01_EqRun Proofs.C01_EqApi Proofs.C01_EqOpaque Proofs.C06_List
  Proofs.C06_Steps Proofs.C01_EqRef Proofs.C01_EqPath Proofs.C01_EqOverflow Proofs.C01_EqAuthSpec
  Proofs.C01_EqAuthModel.
From RU Require Import Proofs.Decimal.

Ltac ll := unfold nlen in *; repeat rewrite app_length in *; cbn [length] in *; lia.

(* the canonical records of the class *)
Definition spec_auth_url (sch un pw : list N) (sh : spec_host) (po : option N) (segs : list (list N))
           (q f : option (list N)) : spec_url :=
  mkSUrl sch un pw (Some sh) po (SPList segs) q f.

Definition auth_s0 (sch : list N) : list N := (sch ++ [58]) ++ [47; 47].

Definition auth_url (sch un pw ht : list N) (hi : host_internal) (po : option N) (pt : list N)
           (q f : option (list N)) : url :=
  let s0 := auth_s0 sch in
  let s1 := s0 ++ cred_text un pw in
  let s2 := s1 ++ ht in
  let s3 := s2 ++ port_suffix po in
  let s4 := s3 ++ pt in
  mkUrl (s4 ++ qf_text q f) (nlen sch) (nlen s0 + nlen un) (nlen s1) (nlen s2) hi po (nlen s3)
        (qf_qs (nlen s4) q) (qf_fs (nlen s4) q f).

Lemma byte_eqb_head a r x : byte_eqb (a ++ r) (nlen a) x = starts_with_cp x r.
Proof.
  unfold byte_eqb. rewrite nnth_app_ge by lia. rewrite N.sub_diag. destruct r; reflexivity.
Qed.

Lemma piece_mid (A B C : list N) : nfirstn (nlen (A ++ B) - nlen A) (nskipn (nlen A) (A ++ B ++ C)) = B.
Proof. rewrite nlen_app. replace (nlen A + nlen B - nlen A) with (nlen B) by lia. rewrite nskipn_app_len. apply nfirstn_app_len. Qed.

Definition cred_tail (un pw : list N) : list N :=
  if is_nil un && is_nil pw then [] else (if is_nil pw then [] else 58 :: pw) ++ [64].
Lemma cred_text_split un pw : cred_text un pw = un ++ cred_tail un pw.
Proof.
  unfold cred_text, cred_tail. destruct un as [|a u]; destruct pw as [|b p]; cbn [is_nil andb]; reflexivity.
Qed.

Lemma cred_text_spec un pw :
  (if negb (list_eqb un []) || negb (list_eqb pw [])
   then un ++ (if negb (list_eqb pw []) then 58 :: pw else []) ++ [64] else [])
  = cred_text un pw.
Proof. unfold cred_text. rewrite !list_eqb_nil. destruct (is_nil un); destruct (is_nil pw); reflexivity. Qed.

Lemma flat_map_head (segs : list (list N)) : starts_with_cp 58 (flat_map (fun s => 47 :: s) segs) = false.
Proof. destruct segs; reflexivity. Qed.

Lemma qf_text_head q f : starts_with_cp 58 (qf_text q f) = false.
Proof. destruct q; destruct f; reflexivity. Qed.

Lemma starts_with_cp_app x a b : starts_with_cp x (a ++ b) = match a with [] => starts_with_cp x b | _ => starts_with_cp x a end.
Proof. destruct a; reflexivity. Qed.

Lemma cred_same_len un pw : nlen (cred_text un pw) = nlen un -> un = [] /\ cred_text un pw = [].
Proof.
  unfold cred_text. destruct un as [|a r]; destruct pw as [|b p]; cbn [is_nil andb]; intros H.
  - split; reflexivity.
  - exfalso. rewrite !nlen_app, nlen_cons in H. unfold nlen in H. cbn [length] in H. lia.
  - exfalso. rewrite !nlen_app in H. unfold nlen in H. cbn [length] in H. lia.
  - exfalso. rewrite !nlen_app, !nlen_cons in H. unfold nlen in H. cbn [length] in H. lia.
Qed.

(* the bytes around the credentials, as wf_authority reads them *)
Lemma cred_delims (S U PWD T : list N) :
  let cred := cred_text U PWD in
  let full := S ++ cred ++ T in
  let ue := nlen S + nlen U in
  let hs := nlen S + nlen cred in
  (ue =? hs) = false ->
  (if byte_eqb full ue 58 then (ue + 2 <=? hs) && byte_eqb full (hs - 1) 64
   else byte_eqb full ue 64 && (hs =? ue + 1)) = true.
Proof.
  cbv zeta. unfold cred_text. destruct U as [|a0 un']; destruct PWD as [|b0 pw']; cbn [is_nil andb]; intros E.
  - rewrite nlen_nil, N.eqb_refl in E. discriminate.
  - rewrite nlen_nil, N.add_0_r.
    assert (S ++ ([] ++ (58 :: b0 :: pw') ++ [64]) ++ T = S ++ 58 :: ((b0 :: pw') ++ 64 :: T)) as E1
      by (repeat rewrite <- app_assoc; reflexivity).
    assert (S ++ ([] ++ (58 :: b0 :: pw') ++ [64]) ++ T = (S ++ 58 :: b0 :: pw') ++ 64 :: T) as E2
      by (repeat rewrite <- app_assoc; reflexivity).
    rewrite E1 at 1. rewrite byte_eqb_app. rewrite E2. 
    apply andb_true_iff. split; [unfold nlen; repeat rewrite app_length; cbn [length]; lia|].
    replace (nlen S + nlen ([] ++ (58 :: b0 :: pw') ++ [64]) - 1) with (nlen (S ++ 58 :: b0 :: pw')).
    2:{ unfold nlen; repeat rewrite app_length; cbn [length]; lia. }
    apply byte_eqb_app.
  - assert (S ++ ((a0 :: un') ++ [] ++ [64]) ++ T = (S ++ a0 :: un') ++ 64 :: T) as E1
      by (repeat rewrite <- app_assoc; reflexivity).
    rewrite E1. rewrite <- nlen_app. rewrite byte_eqb_head. cbn [starts_with_cp N.eqb Pos.eqb]. rewrite byte_eqb_app. cbn [andb].
    apply N.eqb_eq. unfold nlen; repeat rewrite app_length; cbn [length]; lia.
  - assert (S ++ ((a0 :: un') ++ (58 :: b0 :: pw') ++ [64]) ++ T = (S ++ a0 :: un') ++ 58 :: ((b0 :: pw') ++ 64 :: T)) as E1
      by (repeat rewrite <- app_assoc; reflexivity).
    assert (S ++ ((a0 :: un') ++ (58 :: b0 :: pw') ++ [64]) ++ T = ((S ++ a0 :: un') ++ 58 :: b0 :: pw') ++ 64 :: T) as E2
      by (repeat rewrite <- app_assoc; reflexivity).
    rewrite E1 at 1. rewrite <- nlen_app. rewrite byte_eqb_app. rewrite E2.
    apply andb_true_iff. split; [unfold nlen; repeat rewrite app_length; cbn [length]; lia|].
    replace (nlen S + nlen ((a0 :: un') ++ (58 :: b0 :: pw') ++ [64]) - 1) with (nlen ((S ++ a0 :: un') ++ 58 :: b0 :: pw')).
    2:{ unfold nlen; repeat rewrite app_length; cbn [length]; lia. }
    apply byte_eqb_app.
Qed.

(* the serializer of the Standard on the canonical record *)
Section Ser.
Variable shs : spec_host -> list N.

Lemma serialize_auth sch un pw sh po segs q f excl : (forall p, po = Some p -> p <= 65535) ->
  serialize_url shs (spec_auth_url sch un pw sh po segs q f) excl
  = ((((auth_s0 sch ++ cred_text un pw) ++ shs sh) ++ port_suffix po) ++ flat_map (fun s => 47 :: s) segs)
    ++ qf_qtext q ++ (if excl then [] else qf_ftext f).
Proof.
  intros Hp. unfold serialize_url, spec_auth_url, includes_credentials, serialize_path, auth_s0.
  cbn [su_scheme su_username su_password su_host su_port su_path su_query su_fragment].
  rewrite cred_text_spec.
  assert (match po with Some p => 58 :: serialize_integer p | None => [] end = port_suffix po) as ->.
  { destruct po as [p|]; [|reflexivity]. cbn [port_suffix]. rewrite (decimal_serialize p (Hp p eq_refl)). reflexivity. }
  rewrite <- !app_assoc. cbn [app]. destruct q; destruct excl; destruct f; reflexivity.
Qed.

End Ser.

(* the canonical pair is related *)
(* The conditions on the pieces, for a scheme of type `st`: the query is clean for the query set of `st`;
   the last field is what `spec_valid` asks of a file URL and holds vacuously for the other types. *)
Record canon_ok (st : scheme_type) (shs : spec_host -> list N) (sch un pw ht : list N) (hi : host_internal)
       (sh : spec_host) (po : option N) (segs : list (list N)) (q f : option (list N)) : Prop := mk_canon_ok {
  co_sch : scheme_canon sch = true;
  co_st : scheme_type_of sch = st;
  co_ht : ht = shs sh;
  co_col : starts_with_cp 58 ht = false;
  co_hi : hi = HI_None -> ht = [];
  co_hp : ht = [] -> po = None;
  co_po : forall p, po = Some p -> p <= 65535;
  co_pt : forallb (fun c => negb ((c =? 63) || (c =? 35))) (flat_map (fun s => 47 :: s) segs) = true;
  co_q : opt_clean (query_set st) q;
  co_file : sch = str_file -> un = [] /\ pw = [] /\ po = None
}.

Section Canonical.
Variable dbg : bool.
Variable shs : spec_host -> list N.
Variable st : scheme_type.
Variables (sch un pw ht : list N) (hi : host_internal) (sh : spec_host) (po : option N)
          (segs : list (list N)) (q f : option (list N)).
Hypothesis K : canon_ok st shs sch un pw ht hi sh po segs q f.

Let pt := flat_map (fun s => 47 :: s) segs.
Let u := auth_url sch un pw ht hi po pt q f.
Let s0 := auth_s0 sch.
Let s1 := s0 ++ cred_text un pw.
Let s2 := s1 ++ ht.
Let s3 := s2 ++ port_suffix po.
Let s4 := s3 ++ pt.

Lemma canon_ser : ser u = s4 ++ qf_text q f. Proof. reflexivity. Qed.
Lemma canon_s0_len : nlen s0 = nlen sch + 3.
Proof. unfold s0, auth_s0. rewrite !nlen_app. unfold nlen. cbn [length]. lia. Qed.

Lemma canon_has_authority : has_authority_b u = true.
Proof.
  unfold has_authority_b, u, auth_url. cbn [ser scheme_end]. unfold auth_s0. rewrite <- !app_assoc.
  rewrite nskipn_app_len. reflexivity.
Qed.

(* the byte after the credentials is not ':' *)
Lemma canon_after_cred : starts_with_cp 58 (ht ++ port_suffix po ++ pt ++ qf_text q f) = false.
Proof.
  destruct K as [_ _ _ Hcol _ Hhp _ _ _ _]. rewrite starts_with_cp_app. destruct ht as [|a r] eqn:E; [|exact Hcol].
  rewrite (Hhp eq_refl). cbn [port_suffix app]. rewrite starts_with_cp_app.
  unfold pt. destruct (flat_map (fun s => 47 :: s) segs) eqn:E2; [apply qf_text_head|].
  rewrite <- E2. apply flat_map_head.
Qed.

Lemma canon_wf : wf_b u = true.
Proof.
  destruct K as [Hsch Hst Hht Hcol Hhi Hhp Hpo Hpt Hq Hfile].
  unfold scheme_canon in Hsch. apply andb_true_iff in Hsch. destruct Hsch as [Hhead Hall].
  pose proof canon_s0_len as L0.
  unfold wf_b. rewrite canon_has_authority. apply andb_true_iff. split; [apply andb_true_iff; split|].
  - (* scheme *)
    unfold wf_scheme, u, auth_url. cbn [ser scheme_end]. unfold auth_s0.
    repeat (apply andb_true_iff; split).
    + destruct sch; [discriminate|]. unfold nlen. cbn [length]. lia.
    + destruct sch as [|c s]; [discriminate|]. cbn [app]. unfold is_alpha. rewrite Hhead. apply orb_true_r.
    + rewrite <- !app_assoc. rewrite nfirstn_app_len.
      apply (forallb_impl scheme_out_char); [exact scheme_out_char_scheme_char | exact Hall].
    + rewrite <- !app_assoc. cbn [app]. apply byte_eqb_app.
  - (* authority *)
    unfold wf_authority, u, auth_url.
    cbn [ser scheme_end username_end host_start host_end hosti port path_start]. fold s0 s1 s2 s3 s4.
    assert (nlen s1 = nlen s0 + nlen (cred_text un pw)) as L1 by (unfold s1; apply nlen_app).
    assert (nlen s2 = nlen s1 + nlen ht) as L2 by (unfold s2; apply nlen_app).
    assert (nlen s3 = nlen s2 + nlen (port_suffix po)) as L3 by (unfold s3; apply nlen_app).
    assert (nlen s4 = nlen s3 + nlen pt) as L4 by (unfold s4; apply nlen_app).
    pose proof (cred_text_len un pw) as Lc.
    repeat (apply andb_true_iff; split).
    + lia.
    + lia.
    + lia.
    + lia.
    + rewrite nlen_app. lia.
    + (* userinfo delimiters *)
      assert (s4 ++ qf_text q f = s0 ++ cred_text un pw ++ (ht ++ port_suffix po ++ pt ++ qf_text q f)) as EF.
      { unfold s4, s3, s2, s1. rewrite <- !app_assoc. reflexivity. }
      rewrite EF, L1.
      destruct (nlen s0 + nlen un =? nlen s0 + nlen (cred_text un pw)) eqn:E.
      * apply N.eqb_eq in E. assert (nlen (cred_text un pw) = nlen un) as E' by lia.
        destruct (cred_same_len un pw E') as [-> _]. rewrite nlen_nil. apply N.eqb_eq. lia.
      * exact (cred_delims s0 un pw _ E).
    + (* no ':' right after "//" without credentials *)
      destruct (nlen s0 + nlen un =? nlen s1) eqn:E; [|reflexivity].
      apply N.eqb_eq in E. assert (nlen (cred_text un pw) = nlen un) as E' by lia.
      destruct (cred_same_len un pw E') as [Eu Ec].
      rewrite Eu, nlen_nil, N.add_0_r.
      assert (s4 ++ qf_text q f = s0 ++ ht ++ port_suffix po ++ pt ++ qf_text q f) as ->.
      { unfold s4, s3, s2, s1. rewrite Ec. rewrite <- !app_assoc. reflexivity. }
      rewrite byte_eqb_head. rewrite canon_after_cred. reflexivity.
    + (* host kind *)
      destruct hi; try reflexivity. rewrite L2. rewrite (Hhi eq_refl). rewrite nlen_nil. apply N.eqb_eq. lia.
    + (* port *)
      destruct po as [p|] eqn:Epo.
      * pose proof (Hpo p eq_refl) as Hp. cbn [port_suffix] in *.
        repeat (apply andb_true_iff; split).
        -- unfold s4, s3. rewrite <- !app_assoc. cbn [app]. apply byte_eqb_app.
        -- apply list_eqb_spec. rewrite L3. rewrite nlen_cons.
           replace (nlen s2 + (1 + nlen (decimal p)) - (nlen s2 + 1)) with (nlen (decimal p)) by lia.
           unfold s4, s3. rewrite <- !app_assoc. rewrite nskipn_app_add. cbn [app].
           change (nskipn 1 (58 :: decimal p ++ pt ++ qf_text q f)) with (decimal p ++ pt ++ qf_text q f).
           apply nfirstn_app_len.
        -- rewrite L3, nlen_cons. apply N.eqb_eq. lia.
        -- apply N.leb_le. exact Hp.
      * cbn [port_suffix] in *. rewrite L3, nlen_nil. apply N.eqb_eq. lia.
    + (* the path starts with '/' or is empty *)
      unfold s4. rewrite <- app_assoc. rewrite !byte_eqb_head.
      unfold pt. destruct segs as [|g gs]; [|cbn [flat_map app starts_with_cp]; replace (47 =? 47) with true by reflexivity;
                                              rewrite orb_true_r; reflexivity].
      cbn [flat_map app]. rewrite nlen_app.
      destruct q as [x|]; [cbn; rewrite !orb_true_r; reflexivity|].
      destruct f as [y|]; [cbn; rewrite !orb_true_r; reflexivity|].
      cbn [qf_text qf_qtext qf_ftext app]. rewrite ?app_nil_r, nlen_nil, N.add_0_r, N.eqb_refl. reflexivity.
  - (* query and fragment *)
    apply (wf_qf_generic_st st s3 pt q f u); try reflexivity; assumption.
Qed.


Lemma canon_ue_lt : is_nil pw = false -> nlen s0 + nlen un < nlen (ser u).
Proof.
  intros H. rewrite canon_ser. unfold s4, s3, s2, s1. unfold cred_text. rewrite H, andb_false_r.
  unfold nlen. repeat rewrite app_length. cbn [length]. lia.
Qed.

Lemma canon_has_password : has_password_b u = negb (is_nil pw).
Proof.
  unfold has_password_b. rewrite canon_has_authority. cbn [andb].
  assert (username_end u = nlen s0 + nlen un) as -> by reflexivity.
  assert (ser u = s0 ++ cred_text un pw ++ (ht ++ port_suffix po ++ pt ++ qf_text q f)) as EF.
  { rewrite canon_ser. unfold s4, s3, s2, s1. rewrite <- !app_assoc. reflexivity. }
  pose proof canon_after_cred as Hac. pose proof canon_ue_lt as Hlt0.
  destruct pw as [|b0 pw'] eqn:Epw; cbn [is_nil negb].
  - destruct un as [|a0 un'] eqn:Eun.
    + rewrite EF. cbn [cred_text is_nil andb app]. rewrite nlen_nil, N.add_0_r. rewrite byte_eqb_head.
      rewrite Hac. apply andb_false_r.
    + rewrite EF. unfold cred_text. cbn [is_nil andb].
      assert (s0 ++ ((a0 :: un') ++ [] ++ [64]) ++ ht ++ port_suffix po ++ pt ++ qf_text q f
              = (s0 ++ a0 :: un') ++ 64 :: (ht ++ port_suffix po ++ pt ++ qf_text q f)) as ->
        by (repeat rewrite <- app_assoc; reflexivity).
      rewrite <- nlen_app. rewrite byte_eqb_head. cbn [starts_with_cp N.eqb Pos.eqb]. apply andb_false_r.
  - pose proof (Hlt0 eq_refl) as Hlt.
    replace (nlen s0 + nlen un =? nlen (ser u)) with false by lia. cbn [negb andb].
    rewrite EF. unfold cred_text. cbn [is_nil]. rewrite andb_false_r.
    assert (s0 ++ (un ++ (58 :: b0 :: pw') ++ [64]) ++ ht ++ port_suffix po ++ pt ++ qf_text q f
            = (s0 ++ un) ++ 58 :: ((b0 :: pw') ++ 64 :: (ht ++ port_suffix po ++ pt ++ qf_text q f))) as ->
      by (repeat rewrite <- app_assoc; reflexivity).
    rewrite <- nlen_app. apply byte_eqb_app.
Qed.

Theorem canon_api : api_of_model dbg u = Some (spec_api_list shs (spec_auth_url sch un pw sh po segs q f)).
Proof.
  pose proof canon_wf as W. destruct K as [Hsch Hst Hht Hcol Hhi Hhp Hpo Hpt Hq Hfile].
  pose proof canon_s0_len as L0.
  assert (nlen s1 = nlen s0 + nlen (cred_text un pw)) as L1 by (unfold s1; apply nlen_app).
  assert (nlen s2 = nlen s1 + nlen ht) as L2 by (unfold s2; apply nlen_app).
  assert (nlen s3 = nlen s2 + nlen (port_suffix po)) as L3 by (unfold s3; apply nlen_app).
  assert (nlen s4 = nlen s3 + nlen pt) as L4 by (unfold s4; apply nlen_app).
  rewrite (api_of_model_eval dbg u W). f_equal.
  rewrite canon_has_password.
  unfold pidx. rewrite canon_has_password, canon_has_authority.
  unfold piece.
  assert (has_host u = match hi with HI_None => false | _ => true end) as EHH by reflexivity.
  rewrite EHH.
  change (scheme_end u) with (nlen sch). change (username_end u) with (nlen s0 + nlen un).
  change (host_start u) with (nlen s1). change (host_end u) with (nlen s2). change (path_start u) with (nlen s3).
  change (port u) with po. change (query_start u) with (qf_qs (nlen s4) q).
  change (fragment_start u) with (qf_fs (nlen s4) q f). rewrite canon_ser.
  unfold spec_api_list, get_href, get_protocol, get_username, get_password, get_host, get_hostname,
    get_port, get_pathname, get_search, get_hash, serialize_host_opt, serialize_path.
  rewrite (serialize_auth shs sch un pw sh po segs q f false Hpo).
  unfold spec_auth_url. cbn [su_scheme su_username su_password su_host su_port su_path su_query su_fragment].
  rewrite <- Hht. fold pt. fold s0 s1 s2 s3 s4.
  assert (match qf_qs (nlen s4) q with
          | Some x => x
          | None => match qf_fs (nlen s4) q f with Some y => y | None => nlen (s4 ++ qf_text q f) end
          end = nlen s4) as EAP.
  { destruct q as [x|]; [reflexivity|]. destruct f as [y|]; cbn [qf_qs qf_fs qf_qtext].
    - unfold nlen at 2. cbn [length]. lia.
    - unfold qf_text. cbn [qf_qtext qf_ftext app]. rewrite app_nil_r. reflexivity. }
  assert (match qf_fs (nlen s4) q f with Some y => y | None => nlen (s4 ++ qf_text q f) end
          = nlen (s4 ++ qf_qtext q)) as EAQ.
  { destruct f as [y|]; cbn [qf_fs]; [symmetry; apply nlen_app|].
    unfold qf_text. cbn [qf_ftext]. rewrite app_nil_r. reflexivity. }
  rewrite EAP, EAQ.
  apply list10_eq.
  - (* href *) unfold qf_text. reflexivity.
  - (* protocol *)
    unfold s4, s3, s2, s1, s0, auth_s0. rewrite <- !app_assoc.
    replace (nlen sch + 1) with (nlen (sch ++ [58])) by (clear; ll).
    rewrite app_assoc. apply nfirstn_app_len.
  - (* username *)
    replace (nlen sch + 3) with (nlen s0) by lia. rewrite <- nlen_app.
    assert (s4 ++ qf_text q f = s0 ++ un ++ (cred_tail un pw ++ ht ++ port_suffix po ++ pt ++ qf_text q f)) as ->.
    { unfold s4, s3, s2, s1. rewrite cred_text_split. rewrite <- !app_assoc. reflexivity. }
    apply piece_mid.
  - (* password *)
    destruct pw as [|b0 pw'] eqn:Epw; cbn [is_nil negb]; [reflexivity|].
    assert (s4 ++ qf_text q f
            = (s0 ++ un ++ [58]) ++ (b0 :: pw') ++ (64 :: ht ++ port_suffix po ++ pt ++ qf_text q f)) as ->.
    { unfold s4, s3, s2, s1, cred_text. cbn [is_nil]. rewrite andb_false_r. repeat rewrite <- app_assoc. reflexivity. }
    replace (nlen s0 + nlen un + 1) with (nlen (s0 ++ un ++ [58])) by ll.
    replace (nlen s1 - 1) with (nlen ((s0 ++ un ++ [58]) ++ b0 :: pw')).
    2:{ rewrite L1. unfold cred_text. cbn [is_nil]. rewrite andb_false_r. clear. ll. }
    apply piece_mid.
  - (* host *)
    assert (match po with Some p => nlen s2 + 1 + count_digits p | None => nlen s2 end = nlen (s1 ++ ht ++ port_suffix po)) as ->.
    { rewrite app_assoc. fold s2. rewrite nlen_app. destruct po as [p|]; cbn [port_suffix].
      - rewrite (count_digits_decimal p (Hpo p eq_refl)), nlen_cons. lia.
      - rewrite nlen_nil. lia. }
    assert (s4 ++ qf_text q f = s1 ++ (ht ++ port_suffix po) ++ (pt ++ qf_text q f)) as ->.
    { unfold s4, s3, s2. rewrite <- !app_assoc. reflexivity. }
    rewrite piece_mid. destruct po as [p|]; cbn [port_suffix]; [|apply app_nil_r].
    rewrite (decimal_serialize p (Hpo p eq_refl)). reflexivity.
  - (* hostname *)
    assert (nfirstn (nlen s2 - nlen s1) (nskipn (nlen s1) (s4 ++ qf_text q f)) = ht) as E.
    { assert (s4 ++ qf_text q f = s1 ++ ht ++ (port_suffix po ++ pt ++ qf_text q f)) as ->.
      { unfold s4, s3, s2. rewrite <- !app_assoc. reflexivity. }
      unfold s2. apply piece_mid. }
    destruct hi; try exact E. symmetry. apply Hhi. reflexivity.
  - (* port *)
    destruct po as [p|]; cbn [port_suffix] in *.
    + rewrite (count_digits_decimal p (Hpo p eq_refl)).
      assert (s4 ++ qf_text q f = (s2 ++ [58]) ++ decimal p ++ (pt ++ qf_text q f)) as ->.
      { unfold s4, s3. rewrite <- !app_assoc. reflexivity. }
      replace (nlen s2 + 1) with (nlen (s2 ++ [58])) by (clear; ll).
      rewrite <- nlen_app. rewrite piece_mid. apply decimal_serialize. apply Hpo. reflexivity.
    + rewrite N.sub_diag. reflexivity.
  - (* pathname *)
    assert (s4 ++ qf_text q f = s3 ++ pt ++ qf_text q f) as -> by (unfold s4; rewrite <- app_assoc; reflexivity).
    exact (piece_mid s3 pt (qf_text q f)).
  - (* search *)
    rewrite (nlen_app s4). replace (nlen s4 + nlen (qf_qtext q) - nlen s4) with (nlen (qf_qtext q)) by lia.
    rewrite nskipn_app_len. unfold qf_text. rewrite nfirstn_app_len. apply q_trim_qtext.
  - (* hash *)
    unfold qf_text. rewrite app_assoc. rewrite nskipn_app_len. apply q_trim_ftext.
Qed.


Theorem canon_related : related dbg shs u (spec_auth_url sch un pw sh po segs q f).
Proof.
  pose proof canon_wf as W. pose proof canon_api as A. destruct K as [Hsch Hst Hht Hcol Hhi Hhp Hpo Hpt Hq Hfile].
  constructor.
  - exact W.
  - exact A.
  - (* before the fragment *)
    rewrite (serialize_auth shs sch un pw sh po segs q f true Hpo). rewrite <- Hht. fold pt s0 s1 s2 s3 s4.
    rewrite app_nil_r. unfold b_before_fragment. change (fragment_start u) with (qf_fs (nlen s4) q f). rewrite canon_ser.
    unfold qf_text. destruct f as [y|]; cbn [qf_fs qf_ftext].
    + rewrite <- nlen_app. rewrite app_assoc. apply nfirstn_app_exact.
    + rewrite app_nil_r. reflexivity.
  - (* before the query *)
    change (set_query (spec_auth_url sch un pw sh po segs q f) None) with (spec_auth_url sch un pw sh po segs None f).
    rewrite (serialize_auth shs sch un pw sh po segs None f true Hpo). rewrite <- Hht. fold pt s0 s1 s2 s3 s4.
    cbn [qf_qtext app]. rewrite app_nil_r. unfold b_before_query.
    change (query_start u) with (qf_qs (nlen s4) q). change (fragment_start u) with (qf_fs (nlen s4) q f). rewrite canon_ser.
    unfold qf_text. destruct q as [x|]; destruct f as [y|]; cbn [qf_qs qf_fs qf_qtext qf_ftext].
    + apply nfirstn_app_exact.
    + apply nfirstn_app_exact.
    + cbn [app]. rewrite nlen_nil, N.add_0_r. apply nfirstn_app_exact.
    + cbn [app]. apply app_nil_r.
  - (* cannot be a base *)
    rewrite (cannot_be_a_base_eval _ W). cbn [has_opaque_path su_path spec_auth_url]. do 2 f_equal.
    change (scheme_end u) with (nlen sch). rewrite canon_ser. unfold s4, s3, s2, s1, s0, auth_s0.
    repeat rewrite <- app_assoc.
    replace (nlen sch + 1) with (nlen (sch ++ [58])) by (clear; ll). rewrite app_assoc. cbn [app]. rewrite byte_eqb_app. reflexivity.
  - (* scheme *)
    unfold b_scheme. change (scheme_end u) with (nlen sch). rewrite canon_ser. unfold s4, s3, s2, s1, s0, auth_s0.
    repeat rewrite <- app_assoc. apply nfirstn_app_len.
  - split; [intros H; discriminate H | exact Hfile].
Qed.

End Canonical.

Record auth_ok (shs : spec_host -> list N) (sch un pw ht : list N) (hi : host_internal) (sh : spec_host)
       (po : option N) (segs : list (list N)) (q f : option (list N)) : Prop := mk_auth_ok {
  ak_sch : scheme_canon sch = true;
  ak_ns : scheme_type_of sch = STNotSpecial;
  ak_ht : ht = shs sh;
  ak_col : starts_with_cp 58 ht = false;
  ak_hi : hi = HI_None -> ht = [];
  ak_hp : ht = [] -> po = None;
  ak_po : forall p, po = Some p -> p <= 65535;
  ak_pt : forallb (fun c => negb ((c =? 63) || (c =? 35))) (flat_map (fun s => 47 :: s) segs) = true;
  ak_q : opt_clean T_QUERY q
}.

Lemma auth_ok_canon shs sch un pw ht hi sh po segs q f :
  auth_ok shs sch un pw ht hi sh po segs q f -> canon_ok STNotSpecial shs sch un pw ht hi sh po segs q f.
Proof.
  intros [? Hn ? ? ? ? ? ? ?]. constructor; try assumption.
  intros H. rewrite H in Hn. discriminate Hn.
Qed.

Section Related.
Variable dbg : bool.
Variable shs : spec_host -> list N.

Section One.
Variables (sch un pw ht : list N) (hi : host_internal) (sh : spec_host) (po : option N)
          (segs : list (list N)) (q f : option (list N)).
Hypothesis K : auth_ok shs sch un pw ht hi sh po segs q f.

Let pt := flat_map (fun s => 47 :: s) segs.
Let u := auth_url sch un pw ht hi po pt q f.

Lemma au_wf : wf_b u = true.
Proof. exact (canon_wf _ _ _ _ _ _ _ _ _ _ _ _ (auth_ok_canon _ _ _ _ _ _ _ _ _ _ _ K)). Qed.

Theorem au_api : api_of_model dbg u = Some (spec_api_list shs (spec_auth_url sch un pw sh po segs q f)).
Proof. exact (canon_api dbg _ _ _ _ _ _ _ _ _ _ _ _ (auth_ok_canon _ _ _ _ _ _ _ _ _ _ _ K)). Qed.

Theorem related_auth : related dbg shs u (spec_auth_url sch un pw sh po segs q f).
Proof. exact (canon_related dbg _ _ _ _ _ _ _ _ _ _ _ _ (auth_ok_canon _ _ _ _ _ _ _ _ _ _ _ K)). Qed.

End One.
End Related.

(* the model on "//authority..." *)
Section AuthClass.
Variable dbg : bool.
Variable hp hpo : list N -> result host.
Variable hd : host -> list N.
Variable ovr : option (list N -> list N).
Variable shp : bool -> list N -> option spec_host.
Variable shs : spec_host -> list N.

Lemma pqf_norm st se s l :
  parse_query_and_fragment ovr CUrlParser st se s (drop_while is_tnl l) = parse_query_and_fragment ovr CUrlParser st se s l.
Proof. unfold parse_query_and_fragment. rewrite inp_next_drop. reflexivity. Qed.

Lemma pqf_oob (P : Prop) st se s l : usv_list l ->
  query_enc ovr (nfirstn se (s ++ [63])) = utf8_encode ->
  match ntnl l with [] => True | c :: _ => is_qh c = true end ->
  (U32_MAX_P < nlen (s ++ qf_text (pqf_q st l) (pqf_f l)) -> P) ->
  oob P (parse_query_and_fragment ovr CUrlParser st se s l)
      (s ++ qf_text (pqf_q st l) (pqf_f l), qf_qs (nlen s) (pqf_q st l), qf_fs (nlen s) (pqf_q st l) (pqf_f l)).
Proof.
  intros Hu Henc Hh HP.
  assert (match drop_while is_tnl l with [] => True | c :: _ => C02_Parts.is_qh c = true /\ is_tnl c = false end) as Hhead.
  { pose proof (drop_head l) as Hd. pose proof (ntnl_drop l) as Hn.
    destruct (drop_while is_tnl l) as [|d dr]; [exact I|]. rewrite ntnl_cons in Hn by exact Hd.
    rewrite <- Hn in Hh. split; [exact Hh | exact Hd]. }
  pose proof (C01_EqOpaque.pqf_total ovr st se s (drop_while is_tnl l) Hhead) as Tot. rewrite pqf_norm in Tot.
  destruct (parse_query_and_fragment ovr CUrlParser st se s l) as [[[s' qs] fs]|e|] eqn:E.
  - right. destruct (pqf_out ovr st se s l s' qs fs Hu Henc E) as (-> & -> & -> & _). reflexivity.
  - assert (e = Overflow) as -> by (destruct Tot as [K|[r K]]; [inversion K; reflexivity | discriminate K]).
    left. split; [reflexivity|]. apply HP. exact (pqf_overflow ovr st se s l Hu Henc E).
  - exfalso. destruct Tot as [K|[r K]]; discriminate K.
Qed.

Lemma pqf_q_clean l : usv_list l -> opt_clean T_QUERY (pqf_q STNotSpecial l).
Proof.
  intros Hu. unfold pqf_q. destruct (inp_next l) as [[c r]|] eqn:En; [|exact I].
  destruct (c =? 63); [|exact I]. cbn [opt_clean]. apply (query_of_clean STNotSpecial). exact (inp_next_usv l c r Hu En).
Qed.

Lemma wqf_auth_st st sch ue hs he hi po ps tl rest : nlen sch + 3 <= ps ->
  with_query_and_fragment ovr CUrlParser st (nlen sch) ue hs he hi po ps (auth_s0 sch ++ tl) rest
  = (' (s2, qs, fs) <~ parse_query_and_fragment ovr CUrlParser st (nlen sch) (auth_s0 sch ++ tl) rest ;;
     POk (mkUrl s2 (nlen sch) ue hs he hi po ps qs fs)).
Proof.
  intros H. unfold with_query_and_fragment.
  replace (ps =? nlen sch + 1) with false by lia.
  assert ((ps =? nlen sch + 3) && list_eqb (nfirstn (ps - nlen sch) (nskipn (nlen sch) (auth_s0 sch ++ tl))) [58; 47; 46] = false) as ->.
  { destruct (ps =? nlen sch + 3) eqn:E; [|reflexivity]. cbn [andb]. apply N.eqb_eq in E. rewrite E.
    replace (nlen sch + 3 - nlen sch) with 3 by lia. unfold auth_s0. rewrite <- !app_assoc. rewrite nskipn_app_len. reflexivity. }
  cbn [pbind]. reflexivity.
Qed.

Lemma wqf_auth sch ue hs he hi po ps tl rest : nlen sch + 3 <= ps ->
  with_query_and_fragment ovr CUrlParser STNotSpecial (nlen sch) ue hs he hi po ps (auth_s0 sch ++ tl) rest
  = (' (s2, qs, fs) <~ parse_query_and_fragment ovr CUrlParser STNotSpecial (nlen sch) (auth_s0 sch ++ tl) rest ;;
     POk (mkUrl s2 (nlen sch) ue hs he hi po ps qs fs)).
Proof. exact (wqf_auth_st STNotSpecial sch ue hs he hi po ps tl rest). Qed.

Lemma hi_none_iff h : hi_of_host h = HI_None <-> h = HDomain [].
Proof. destruct h as [[|a b]| |]; cbn; split; intros H; try reflexivity; try discriminate H. Qed.

Lemma hs_host_empty HR : hs_host false HR = [] -> port_split (hs_rest false HR) = None -> starts_ae HR = true.
Proof.
  destruct HR as [|c r]; [reflexivity|]. cbn [hs_host hs_rest starts_ae]. destruct (hs_stop false c) eqn:E; [|discriminate].
  intros _. cbn [port_split]. unfold hs_stop in E. cbn [negb] in E. rewrite andb_true_r in E.
  destruct (c =? 58); [discriminate | intros _; exact E].
Qed.

Lemma starts_ae_host HR : starts_ae HR = true -> hs_host false HR = [] /\ hs_rest false HR = HR /\ port_split HR = None.
Proof.
  destruct HR as [|c r]; [intros _; repeat split|]. cbn [starts_ae hs_host hs_rest port_split]. intros H.
  unfold hs_stop. rewrite H, orb_true_r. repeat split.
  destruct (c =? 58) eqn:E; [|reflexivity]. apply N.eqb_eq in E. subst c. discriminate H.
Qed.

(* after_double_slash, once its three stages are known: the canonical record, or Overflow with a serialization
   beyond u32 *)
Lemma ads_oob st sch l un pw rem host port rem' segs rest :
  (forall P : Prop, (U32_MAX_P < nlen (auth_s0 sch ++ cred_text un pw) -> P) ->
     oob P (parse_userinfo st (auth_s0 sch) l) (auth_s0 sch ++ cred_text un pw, nlen (auth_s0 sch) + nlen un, rem)) ->
  (forall P : Prop, (U32_MAX_P < nlen ((auth_s0 sch ++ cred_text un pw) ++ hd host) -> P) ->
     oob P (parse_host_and_port hp hpo hd CUrlParser st (nlen sch) (auth_s0 sch ++ cred_text un pw) rem)
         (((auth_s0 sch ++ cred_text un pw) ++ hd host) ++ port_suffix port,
          nlen ((auth_s0 sch ++ cred_text un pw) ++ hd host), hi_of_host host, port, rem')) ->
  hi_eqb (hi_of_host host) HI_None && negb (nlen (auth_s0 sch) =? nlen (auth_s0 sch ++ cred_text un pw)) = false ->
  parse_path_start dbg CUrlParser st true (((auth_s0 sch ++ cred_text un pw) ++ hd host) ++ port_suffix port) rem'
  = POk ((((auth_s0 sch ++ cred_text un pw) ++ hd host) ++ port_suffix port) ++ flat_map (fun s => 47 :: s) segs, true, rest) ->
  usv_list rest -> match ntnl rest with [] => True | c :: _ => is_qh c = true end ->
  query_enc ovr sch = utf8_encode ->
  let U := auth_url sch un pw (hd host) (hi_of_host host) port (flat_map (fun s => 47 :: s) segs) (pqf_q st rest) (pqf_f rest) in
  oob (U32_MAX_P < nlen (ser U)) (after_double_slash dbg hp hpo hd ovr CUrlParser st (nlen sch) (sch ++ [58]) l) U.
Proof.
  intros HPU HO Echk Eps Hurest Hresth Hqe U. set (ser0 := auth_s0 sch) in *.
  set (q := pqf_q st rest) in *. set (f := pqf_f rest) in *.
  assert (forall pre, (exists tl, ser U = pre ++ tl) -> U32_MAX_P < nlen pre -> U32_MAX_P < nlen (ser U)) as Hpre.
  { intros pre [tl ->] Hlt. rewrite nlen_app. lia. }
  unfold after_double_slash. change ((sch ++ [58]) ++ [47; 47]) with ser0.
  eapply oob_bind.
  { apply HPU. apply Hpre. unfold U, auth_url. cbn [ser]. fold ser0.
    eexists. repeat rewrite <- app_assoc. reflexivity. }
  cbv beta iota.
  eapply oob_bind.
  { apply oob_u32. apply Hpre. unfold U, auth_url. cbn [ser]. fold ser0.
    eexists. repeat rewrite <- app_assoc. reflexivity. }
  eapply oob_bind.
  { apply HO. apply Hpre. unfold U, auth_url. cbn [ser]. fold ser0.
    eexists. repeat rewrite <- app_assoc. reflexivity. }
  cbv beta iota. rewrite Echk.
  eapply oob_bind.
  { apply oob_u32. apply Hpre. unfold U, auth_url. cbn [ser]. fold ser0.
    eexists. repeat rewrite <- app_assoc. reflexivity. }
  rewrite Eps. cbn [pbind].
  replace ((((ser0 ++ cred_text un pw) ++ hd host) ++ port_suffix port) ++ flat_map (fun s => 47 :: s) segs)
    with (auth_s0 sch ++ (cred_text un pw ++ hd host ++ port_suffix port ++ flat_map (fun s => 47 :: s) segs))
    by (fold ser0; repeat rewrite <- app_assoc; reflexivity).
  rewrite wqf_auth_st by (unfold ser0, auth_s0, nlen; repeat rewrite app_length; cbn [length]; lia).
  eapply oob_bind.
  { apply (pqf_oob (U32_MAX_P < nlen (ser U))); [exact Hurest | | exact Hresth |].
    - unfold auth_s0. repeat rewrite <- app_assoc. rewrite nfirstn_app_len. exact Hqe.
    - fold q f. intros Hlt. unfold U, auth_url. cbn [ser]. fold ser0.
      replace (((((ser0 ++ cred_text un pw) ++ hd host) ++ port_suffix port) ++ flat_map (fun s => 47 :: s) segs) ++ qf_text q f)
        with ((auth_s0 sch ++ cred_text un pw ++ hd host ++ port_suffix port ++ flat_map (fun s => 47 :: s) segs) ++ qf_text q f)
        by (fold ser0; repeat rewrite <- app_assoc; reflexivity).
      exact Hlt. }
  fold q f. right. unfold U, auth_url. fold ser0.
  assert (ser0 ++ cred_text un pw ++ hd host ++ port_suffix port ++ flat_map (fun s => 47 :: s) segs
          = (((ser0 ++ cred_text un pw) ++ hd host) ++ port_suffix port) ++ flat_map (fun s => 47 :: s) segs) as ->
    by (repeat rewrite <- app_assoc; reflexivity).
  reflexivity.
Qed.

Theorem model_auth_cont sch l un pw rem HR :
  usv_list l -> scheme_canon sch = true -> scheme_type_of sch = STNotSpecial ->
  let ser0 := auth_s0 sch in
  let u1 := mkSUrl sch un pw None None (SPList []) None None in
  (forall P : Prop, (U32_MAX_P < nlen (ser0 ++ cred_text un pw) -> P) ->
     oob P (parse_userinfo STNotSpecial ser0 l) (ser0 ++ cred_text un pw, nlen ser0 + nlen un, rem)) ->
  ntnl rem = HR -> usv_list rem ->
  host_agree hpo hd shp shs (hs_host false HR) ->
  match port_split (hs_rest false HR) with
  | Some PR => ((decimal_value (digits_of PR) <=? 65535) && starts_with_cp 92 (after_digits PR)) = false
  | None => True
  end ->
  (match (match port_split (hs_rest false HR) with Some PR => after_digits PR | None => hs_rest false HR end) with
   | c :: r => if c =? 47 then spath_ok r [] [] = true else True
   | [] => True
   end) ->
  if negb (is_nil (cred_text un pw)) && starts_ae HR
  then mfail (after_double_slash dbg hp hpo hd ovr CUrlParser STNotSpecial (nlen sch) (sch ++ [58]) l)
  else match sauth_host shp u1 HR with
       | None => mfail (after_double_slash dbg hp hpo hd ovr CUrlParser STNotSpecial (nlen sch) (sch ++ [58]) l)
       | Some su =>
           exists u, oob (U32_MAX_P < nlen (ser u))
                         (after_double_slash dbg hp hpo hd ovr CUrlParser STNotSpecial (nlen sch) (sch ++ [58]) l) u
                     /\ related dbg shs u su /\ nlen sch <= nlen (ser u)
       end.
Proof.
  intros Hu Hcan Hns ser0 u1 HPU Hrem Hurem HA Hbs Hok.
  assert (exists tl, ser0 ++ cred_text un pw = sch ++ tl) as Htl.
  { exists ([58] ++ [47; 47] ++ cred_text un pw). unfold ser0, auth_s0. rewrite <- !app_assoc. reflexivity. }
  pose proof (hp_spec hp hpo hd shp shs sch (ser0 ++ cred_text un pw) rem u1 Hurem Hns Htl eq_refl) as HP.
  cbv zeta in HP. rewrite Hrem in HP. specialize (HP HA Hbs).
  unfold after_double_slash. change ((sch ++ [58]) ++ [47; 47]) with ser0.
  assert (negb (nlen ser0 =? nlen (ser0 ++ cred_text un pw)) = negb (is_nil (cred_text un pw))) as Eha.
  { rewrite nlen_app. destruct (cred_text un pw) as [|a b]; cbn [is_nil].
    - rewrite nlen_nil, N.add_0_r, N.eqb_refl. reflexivity.
    - replace (nlen ser0 =? nlen ser0 + nlen (a :: b)) with false by (rewrite nlen_cons; lia). reflexivity. }
  destruct (negb (is_nil (cred_text un pw)) && starts_ae HR) eqn:Ecase.
  - (* credentials in front of an empty host *)
    apply andb_true_iff in Ecase. destruct Ecase as [Ec Eae].
    destruct (starts_ae_host HR Eae) as (Eh & Er & Eps).
    unfold sauth_host in HP. rewrite Er, Eps, Eh in HP. unfold host_agree in HA. rewrite Eh in HA.
    eapply mfail_bind2; [apply (HPU True); intros _; exact I|]. cbv beta iota.
    eapply mfail_bind2 with (P := True); [apply oob_u32; intros _; exact I|].
    destruct (host_parsing shp true []) as [sh|] eqn:Esh.
    + destruct HP as (host & sh' & port & rem' & Ehpo & _ & _ & _ & _ & _ & _ & _ & HO).
      rewrite Ehpo in HA. destruct HA as (_ & _ & Hemp & _).
      assert (host = HDomain []) as -> by (apply Hemp; reflexivity).
      eapply mfail_bind2; [apply (HO True); intros _; exact I|]. cbv beta iota.
      cbn [hi_of_host hi_eqb andb]. rewrite Eha, Ec. exists EmptyHost. reflexivity.
    + apply mfail_bind. exact HP.
  - destruct (sauth_host shp u1 HR) as [su|] eqn:Esu.
    2:{ eapply mfail_bind2; [apply (HPU True); intros _; exact I|]. cbv beta iota.
        eapply mfail_bind2 with (P := True); [apply oob_u32; intros _; exact I|]. apply mfail_bind. exact HP. }
    destruct HP as (host & sh & port & rem' & Ehpo & Eshp & Hhp & Hpo & Hrem' & Hurem' & HXae & Esu' & HO).
    unfold host_agree in HA. rewrite Ehpo, Eshp in HA. destruct HA as (Htxt & Hcol & Hemp & Hemp2).
    set (X := match port_split (hs_rest false HR) with Some PR => after_digits PR | None => hs_rest false HR end) in *.
    rewrite <- Hrem' in Hok, HXae.
    destruct (path_start_spec dbg rem' (((ser0 ++ cred_text un pw) ++ hd host) ++ port_suffix port) true Hurem' HXae Hok)
      as (segs & rest & Eps & Hurest & Hpt & Hnsl & Htail & Hresth).
    set (q := pqf_q STNotSpecial rest). set (f := pqf_f rest).
    exists (auth_url sch un pw (hd host) (hi_of_host host) port (flat_map (fun s => 47 :: s) segs) q f).
    (* the host check of after_double_slash passes *)
    assert (hi_eqb (hi_of_host host) HI_None && negb (nlen ser0 =? nlen (ser0 ++ cred_text un pw)) = false) as Echk.
    { rewrite Eha. destruct (is_nil (cred_text un pw)) eqn:Ec; cbn [negb]; [apply andb_false_r|].
      cbn [negb andb] in Ecase.
      assert (host <> HDomain []) as Hne.
      { intros Hh. apply Hemp in Hh. unfold sauth_host in Esu. rewrite Hh in Esu.
        destruct (port_split (hs_rest false HR)) eqn:Eps2; [discriminate Esu|].
        rewrite (hs_host_empty HR Hh Eps2) in Ecase. discriminate Ecase. }
      destruct (hi_of_host host) eqn:Ehi; try reflexivity. exfalso. apply Hne. apply hi_none_iff. exact Ehi. }
    split.
    + (* the model: the canonical record, or Overflow with a serialization beyond u32 *)
      apply (ads_oob STNotSpecial sch l un pw rem host port rem' segs rest HPU HO Echk Eps Hurest Hresth).
      apply query_enc_nonspecial. exact Hns.
    + split; [|unfold auth_url; cbn [ser]; unfold auth_s0, nlen; repeat rewrite app_length; lia].
      (* related to the Standard's record *)
      assert (su = spec_auth_url sch un pw sh port segs q f) as ->.
      { rewrite Esu'. rewrite <- Hrem'. rewrite Htail; [reflexivity | reflexivity | | reflexivity | reflexivity].
        unfold is_special. cbn [su_scheme set_port set_host u1]. rewrite <- special_schemes_are_the_standards, Hns. reflexivity. }
      apply related_auth. constructor.
      * exact Hcan.
      * exact Hns.
      * exact Htxt.
      * exact Hcol.
      * intros Hh. apply Hemp2. apply Hemp. apply hi_none_iff. exact Hh.
      * intros Hh. apply Hhp. apply Hemp2. exact Hh.
      * exact Hpo.
      * exact Hpt.
      * apply pqf_q_clean. exact Hurest.
Qed.


Lemma cred_nil_colon w : is_nil w = false -> cr_user w = [] -> cr_pass w = [] -> w = [58].
Proof.
  destruct w as [|c r]; [discriminate|]. intros _. cbn [cr_user cr_pass]. destruct (c =? 58) eqn:E; [|discriminate].
  intros _ ->. apply N.eqb_eq in E. subst c. reflexivity.
Qed.

Lemma cred_text_nil un pw : is_nil (cred_text un pw) = is_nil un && is_nil pw.
Proof. unfold cred_text. destruct un; destruct pw; reflexivity. Qed.

(* the text l after "scheme://" *)
Theorem model_auth sch l : usv_list l -> scheme_canon sch = true -> scheme_type_of sch = STNotSpecial ->
  let T := ntnl l in
  list_eqb (a_part T) [58; 64] = false -> auth_port_bslash T = false ->
  (match auth_path_text T with c :: r => if c =? 47 then spath_ok r [] [] = true else True | [] => True end) ->
  host_agree hpo hd shp shs (auth_host_text T) ->
  match sauth shp sch T with
  | None => mfail (after_double_slash dbg hp hpo hd ovr CUrlParser STNotSpecial (nlen sch) (sch ++ [58]) l)
  | Some su =>
      exists u, oob (U32_MAX_P < nlen (ser u))
                    (after_double_slash dbg hp hpo hd ovr CUrlParser STNotSpecial (nlen sch) (sch ++ [58]) l) u
                /\ related dbg shs u su /\ nlen sch <= nlen (ser u)
  end.
Proof.
  intros Hu Hcan Hns T Ha Hb Hc HA. unfold auth_port_bslash, auth_path_text, auth_host_text in *.
  unfold sauth. pose proof (parse_userinfo_spec (auth_s0 sch) l Hu) as PU. fold T in PU.
  pose proof (a_part_no_ae T) as Hnae.
  unfold after_at in *. destruct (last_at (a_part T)) as [[w h]|] eqn:Ela; cbn [fst snd] in *.
  - set (HR := h ++ a_rest T) in *.
    assert (match port_split (hs_rest false HR) with
            | Some PR => ((decimal_value (digits_of PR) <=? 65535) && starts_with_cp 92 (after_digits PR)) = false
            | None => True end) as Hbs by (destruct (port_split (hs_rest false HR)); [exact Hb | exact I]).
    cbn [opt_is_some andb].
    destruct (is_nil w && starts_ae HR) eqn:E1.
    + apply andb_true_iff in E1. destruct E1 as [_ E2]. rewrite E2.
      unfold after_double_slash. change ((sch ++ [58]) ++ [47; 47]) with (auth_s0 sch). rewrite PU. exists EmptyHost. reflexivity.
    + destruct PU as (rem & Hrem & Hurem & HPU).
      set (un := encU (cr_user w)) in *. set (pw := encU (cr_pass w)) in *.
      pose proof (model_auth_cont sch l un pw rem HR Hu Hcan Hns HPU Hrem Hurem HA Hbs Hc) as C. cbv zeta in C.
      assert (cred_of (Some w) (set_scheme empty_url sch) = mkSUrl sch un pw None None (SPList []) None None) as ->.
      { cbn [cred_of]. rewrite ac_false. unfold un, pw. rewrite !encU_upe. reflexivity. }
      destruct (starts_ae HR) eqn:Eae.
      * rewrite andb_true_r in E1, C.
        assert (negb (is_nil (cred_text un pw)) = true) as Ene.
        { rewrite cred_text_nil. unfold un, pw. rewrite !encU_nil_iff.
          destruct (is_nil (cr_user w)) eqn:EU; [|reflexivity]. destruct (is_nil (cr_pass w)) eqn:EP; [|reflexivity].
          exfalso. destruct (cr_user w) eqn:EU'; [|discriminate EU]. destruct (cr_pass w) eqn:EP'; [|discriminate EP].
          pose proof (cred_nil_colon w E1 EU' EP') as Ew.
          pose proof (last_at_split _ _ _ Ela) as Esp.
          assert (forallb (fun c => negb (is_ae c)) h = true) as Hh.
          { rewrite Esp in Hnae. rewrite forallb_app in Hnae. apply andb_true_iff in Hnae. destruct Hnae as [_ Hn].
            cbn [forallb] in Hn. apply andb_true_iff in Hn. tauto. }
          unfold HR in Eae. rewrite (starts_ae_app h (a_rest T) Hh (a_rest_starts T)) in Eae.
          destruct h; [|discriminate Eae]. rewrite Esp, Ew in Ha. discriminate Ha. }
        rewrite Ene in C. exact C.
      * rewrite andb_false_r in C. exact C.
  - cbn [opt_is_some andb cred_of].
    assert (match port_split (hs_rest false T) with
            | Some PR => ((decimal_value (digits_of PR) <=? 65535) && starts_with_cp 92 (after_digits PR)) = false
            | None => True end) as Hbs by (destruct (port_split (hs_rest false T)); [exact Hb | exact I]).
    assert (forall P : Prop, (U32_MAX_P < nlen (auth_s0 sch ++ cred_text [] []) -> P) ->
              oob P (parse_userinfo STNotSpecial (auth_s0 sch) l) (auth_s0 sch ++ cred_text [] [], nlen (auth_s0 sch) + nlen [], l)) as HPU.
    { intros P HP. cbn [cred_text is_nil andb] in *. rewrite app_nil_r in *. rewrite nlen_nil, N.add_0_r. apply PU. exact HP. }
    pose proof (model_auth_cont sch l [] [] l T Hu Hcan Hns HPU eq_refl Hu HA Hbs Hc) as C. cbv zeta in C.
    cbn [cred_text is_nil andb negb] in C. exact C.
Qed.

End AuthClass.
