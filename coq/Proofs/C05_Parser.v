(* Proofs/C05_Parser.v - every parser function preserves "all bytes of the serialization satisfy P"
   for any P that holds on 0x21..0x7E (instantiated with ok_byte and with ok_or_space), one lemma per
   function of Model/Parser.v.  The opaque-path state is the only one that needs P 0x20.
   parse_case / parse_url_case: the top of the parser (parse_url, parse_with_scheme) as a case distinction over the
   state function that produced the record; relative_arm / parse_relative_case and file_arm / parse_file_case: the
   same for the six kinds of relative reference and the seven arms of the file state; after_double_slash_steps and
   with_query_and_fragment_steps: what the two states that every arm ends in do; the other walks over the parser (C05_Tail, C05_BaseOk, C05_AuthParse,
   C05_ParseAll, C05_PathSpParse, C05_HostParse) start from it. *)
From RU Require Import Base.Prelude Base.Utf8 Base.Utf8Facts Model.AsciiSet Gen.Tables Model.PercentEncoding
  Model.HostT Model.UrlRecord Model.Parser Proofs.ListN Proofs.C14_Set Proofs.C14_Enc Proofs.C14_Views Proofs.C05_Enc.

Lemma pbind_ok {A B} (x : pres A) (f : A -> pres B) b :
  pbind x f = POk b -> exists a, x = POk a /\ f a = POk b.
Proof. destruct x; cbn [pbind]; intros H; [eauto | discriminate | discriminate]. Qed.

Ltac lit_list l := lazymatch l with | nil => idtac | cons _ ?r => lit_list r end.

Ltac pb H a Ha := apply pbind_ok in H; destruct H as (a & Ha & H).

Lemma of_option_ok {A} (o : option A) a : of_option o = POk a -> o = Some a.
Proof. destruct o; cbn; intros H; [inversion H; reflexivity | discriminate]. Qed.
Lemma of_result_ok {A} (r : result A) a : of_result r = POk a -> r = Ok a.
Proof. destruct r; cbn; intros H; [inversion H; reflexivity | discriminate]. Qed.

Lemma match47 {A} (c : N) (a b : A) : (match c with 47 => a | _ => b end) = if c =? 47 then a else b.
Proof. destruct c as [|p]; [reflexivity|]. do 6 (destruct p as [p|p|]; try reflexivity). Qed.

Section Arms.
Variable dbg : bool.
Variable host_parse host_parse_opaque : list N -> result host.
Variable host_display : host -> list N.
Variable ovr : option (list N -> list N).

(* Which state function produced the record, with the arguments it was called with.  The walks over the parser
   (byte alphabet, offsets, userinfo and path clauses, host text) start from this case distinction. *)
Inductive parse_case (base : option url) (input : list N) (u : url) : Prop :=
| arm_fragment b l : base = Some b -> fragment_only b l = POk u -> parse_case base input u
| arm_file base_file l :
    match base_file with Some b => base = Some b /\ scheme_type_of (b_scheme b) = STFile | None => True end ->
    parse_file dbg host_parse host_display ovr CUrlParser STFile base_file l = POk u -> parse_case base input u
| arm_ads sch l0 l : parse_scheme CUrlParser (input_new_trim_c0 input) = Some (sch, l0) ->
    scheme_type_of sch = STSpecialNotFile ->
    after_double_slash dbg host_parse host_parse_opaque host_display ovr CUrlParser STSpecialNotFile (nlen sch) (sch ++ [58]) l = POk u ->
    parse_case base input u
| arm_relative b l : base = Some b -> st_is_file (scheme_type_of (b_scheme b)) = false ->
    scheme_type_of (b_scheme b) = STSpecialNotFile \/ cannot_be_a_base b = Some false ->
    parse_relative dbg host_parse host_parse_opaque host_display ovr CUrlParser (scheme_type_of (b_scheme b)) b l = POk u ->
    parse_case base input u
| arm_non_special sch l : parse_scheme CUrlParser (input_new_trim_c0 input) = Some (sch, l) ->
    scheme_type_of sch = STNotSpecial ->
    parse_non_special dbg host_parse host_parse_opaque host_display ovr CUrlParser STNotSpecial (nlen sch) (sch ++ [58]) l = POk u ->
    parse_case base input u.

Theorem parse_url_case base input u :
  parse_url dbg host_parse host_parse_opaque host_display ovr base input = POk u -> parse_case base input u.
Proof.
  unfold parse_url. cbv zeta. intros H.
  destruct (parse_scheme CUrlParser (input_new_trim_c0 input)) as [[sch l]|] eqn:Es.
  - unfold parse_with_scheme in H. pb H se Hse. cbv zeta in H.
    assert (se = nlen sch) as -> by (unfold to_u32 in Hse; destruct (nlen sch <=? U32_MAX_P); inversion Hse; reflexivity).
    destruct (scheme_type_of sch) eqn:Est.
    + eapply arm_file; [|exact H]. destruct base as [b|]; [|exact I].
      destruct (list_eqb (b_scheme b) s_file) eqn:E; [|exact I]. apply list_eqb_spec in E. rewrite E. split; reflexivity.
    + destruct (inp_count_matching is_slash_or_bslash l) as [slashes remaining].
      destruct base as [b|]; [|exact (arm_ads None input u sch l remaining Es Est H)].
      destruct ((slashes <? 2) && list_eqb (b_scheme b) sch) eqn:Ec; [|exact (arm_ads _ input u sch l remaining Es Est H)].
      apply andb_true_iff in Ec. destruct Ec as [_ Ec]. apply list_eqb_spec in Ec. pb H u_ Hu.
      apply (arm_relative (Some b) input u b l eq_refl); rewrite Ec, Est; [reflexivity | left; reflexivity | exact H].
    + exact (arm_non_special base input u sch l Es Est H).
  - destruct base as [b|]; [|discriminate].
    destruct (inp_starts_with_char 35 (input_new_trim_c0 input)); [exact (arm_fragment (Some b) input u b _ eq_refl H)|].
    destruct (cannot_be_a_base b) as [[|]|] eqn:Ec; try discriminate.
    destruct (st_is_file (scheme_type_of (b_scheme b))) eqn:Ef.
    + assert (scheme_type_of (b_scheme b) = STFile) as E by (destruct (scheme_type_of (b_scheme b)); try discriminate Ef; reflexivity).
      rewrite E in H. exact (arm_file (Some b) input u (Some b) _ (conj eq_refl E) H).
    + exact (arm_relative (Some b) input u b _ eq_refl Ef (or_intror Ec) H).
Qed.

(* with_query_and_fragment first repairs the marker "/." between "scheme:" and a path that starts with "//": it puts
   one in where the path would otherwise read as an authority, and takes a stale one out *)
Inductive marker_fix (se ps : N) (s : list N) : list N -> N -> Prop :=
| fix_none : marker_fix se ps s s ps
| fix_insert : ps = se + 1 -> starts_with s_ss (nskipn ps s) = true ->
    marker_fix se ps s (nfirstn ps s ++ [47; 46] ++ nskipn ps s) (ps + 2)
| fix_remove : ps = se + 3 -> list_eqb (nfirstn (ps - se) (nskipn se s)) [58; 47; 46] = true ->
    (exists b, nnth s ps = Some b /\ (b =? 47) = true) ->
    marker_fix se ps s (nfirstn se s ++ [58] ++ nskipn ps s) (ps - 2).

Lemma with_query_and_fragment_steps ctx st se ue hs he hi pt ps s rem u :
  with_query_and_fragment ovr ctx st se ue hs he hi pt ps s rem = POk u ->
  exists s1 ps1 s2 qs fs, marker_fix se ps s s1 ps1
    /\ parse_query_and_fragment ovr ctx st se s1 rem = POk (s2, qs, fs)
    /\ u = mkUrl s2 se ue hs he hi pt ps1 qs fs.
Proof.
  unfold with_query_and_fragment. intros H. pb H a Ha. destruct a as [s1 ps1].
  pb H b Hb. destruct b as [[s2 qs] fs]. inversion H; subst u. clear H.
  exists s1, ps1, s2, qs, fs. split; [|split; [exact Hb | reflexivity]].
  destruct (ps =? se + 1) eqn:Eps.
  - apply N.eqb_eq in Eps. destruct (starts_with s_ss (nskipn ps s)) eqn:Ess; pb Ha x Hx; inversion Ha; subst s1 ps1.
    + exact (fix_insert se ps s Eps Ess).
    + apply fix_none.
  - destruct ((ps =? se + 3) && list_eqb (nfirstn (ps - se) (nskipn se s)) [58; 47; 46]) eqn:E2.
    + apply andb_true_iff in E2. destruct E2 as [E2 E3]. apply N.eqb_eq in E2.
      pb Ha x Hx.
      assert (exists b, nnth s ps = Some b /\ (b =? 47) = true) as Hm.
      { destruct (nnth s ps) as [b|]; [|discriminate Hx]. exists b. split; [reflexivity|].
        destruct (b =? 47); [reflexivity | discriminate Hx]. }
      destruct (nnth s (ps + 1)) as [d|]; [rewrite match47 in Ha; destruct (d =? 47)|]; pb Ha y Hy; inversion Ha; subst s1 ps1;
        first [apply fix_none | exact (fix_remove se ps s E2 E3 Hm)].
    + inversion Ha; subst s1 ps1. apply fix_none.
Qed.

(* after "//": userinfo, host and port, path, then query and fragment; host_start and path_start are the lengths
   reached *)
Lemma after_double_slash_steps ctx st se ser0 l u :
  after_double_slash dbg host_parse host_parse_opaque host_display ovr ctx st se ser0 l = POk u ->
  exists ser1 ue rm ser2 he hi pt rm2 s3 hh rm3,
    parse_userinfo st (ser0 ++ [47; 47]) l = POk (ser1, ue, rm)
    /\ parse_host_and_port host_parse host_parse_opaque host_display ctx st se ser1 rm = POk (ser2, he, hi, pt, rm2)
    /\ parse_path_start dbg ctx st true ser2 rm2 = POk (s3, hh, rm3)
    /\ with_query_and_fragment ovr ctx st se ue (nlen ser1) he hi pt (nlen ser2) s3 rm3 = POk u.
Proof.
  unfold after_double_slash. cbv zeta. intros H.
  pb H a Ha. destruct a as [[ser1 ue] rm]. pb H hs Hhs.
  assert (hs = nlen ser1) as -> by (unfold to_u32 in Hhs; destruct (nlen ser1 <=? U32_MAX_P); inversion Hhs; reflexivity).
  pb H b Hb. destruct b as [[[[ser2 he] hi] pt] rm2].
  match type of H with (if ?c then _ else _) = _ => destruct c; [discriminate|] end.
  pb H ps Hps.
  assert (ps = nlen ser2) as -> by (unfold to_u32 in Hps; destruct (nlen ser2 <=? U32_MAX_P); inversion Hps; reflexivity).
  pb H c Hc. destruct c as [[s3 hh] rm3].
  exists ser1, ue, rm, ser2, he, hi, pt, rm2, s3, hh, rm3. repeat split; assumption.
Qed.

(* the state behind "scheme:" of a non-special scheme: an authority, a path that starts with '/', or an opaque path *)
Inductive non_special_arm (ctx : context) (st : scheme_type) (se : N) (ser0 l : list N) (u : url) : Prop :=
| ns_ads rem : inp_split_prefix_str s_ss l = Some rem ->
    after_double_slash dbg host_parse host_parse_opaque host_display ovr ctx st se ser0 rem = POk u ->
    non_special_arm ctx st se ser0 l u
| ns_path r s hh rem : inp_split_prefix_str s_ss l = None -> inp_split_prefix_char 47 l = Some r ->
    parse_path dbg ctx st false (nlen ser0) (ser0 ++ [47]) r = POk (s, hh, rem) ->
    with_query_and_fragment ovr ctx st se (nlen ser0) (nlen ser0) (nlen ser0) HI_None None (nlen ser0) s rem = POk u ->
    non_special_arm ctx st se ser0 l u
| ns_opaque : inp_split_prefix_str s_ss l = None -> inp_split_prefix_char 47 l = None ->
    with_query_and_fragment ovr ctx st se (nlen ser0) (nlen ser0) (nlen ser0) HI_None None (nlen ser0)
      (fst (parse_cannot_be_a_base_path ctx ser0 l)) (snd (parse_cannot_be_a_base_path ctx ser0 l)) = POk u ->
    non_special_arm ctx st se ser0 l u.

Lemma parse_non_special_case ctx st se ser0 l u :
  parse_non_special dbg host_parse host_parse_opaque host_display ovr ctx st se ser0 l = POk u ->
  non_special_arm ctx st se ser0 l u.
Proof.
  unfold parse_non_special. intros H.
  destruct (inp_split_prefix_str s_ss l) as [rem|] eqn:Ess; [exact (ns_ads ctx st se ser0 l u rem Ess H)|].
  pb H ps Hps.
  assert (ps = nlen ser0) as -> by (unfold to_u32 in Hps; destruct (nlen ser0 <=? U32_MAX_P); inversion Hps; reflexivity).
  pb H a Ha. destruct a as [s1 rem].
  destruct (inp_split_prefix_char 47 l) as [r|] eqn:E47.
  - pb Ha b Hb. destruct b as [[s hh] r0]. inversion Ha; subst s1 rem.
    exact (ns_path ctx st se ser0 l u r s hh r0 Ess E47 Hb H).
  - inversion Ha as [Ea]. apply (ns_opaque ctx st se ser0 l u Ess E47). rewrite Ea. exact H.
Qed.

(* the arms of parse_relative: the three references that keep text of the base, a new authority behind the scheme
   of the base, a new path behind its authority ('/'-led, or relative to the path of the base) *)
Inductive relative_arm (ctx : context) (st : scheme_type) (b : url) (l : list N) (u : url) : Prop :=
| rel_empty : u = url_with b (b_before_fragment b) (query_start b) None -> relative_arm ctx st b l u
| rel_query s qs fs :
    parse_query_and_fragment ovr ctx st (scheme_end b) (b_before_query b) l = POk (s, qs, fs) ->
    u = url_with b s qs fs -> relative_arm ctx st b l u
| rel_fragment : fragment_only b l = POk u -> relative_arm ctx st b l u
| rel_ads x :
    after_double_slash dbg host_parse host_parse_opaque host_display ovr ctx st (scheme_end b)
      (nfirstn (scheme_end b + 1) (ser b)) x = POk u -> relative_arm ctx st b l u
| rel_slash r s hh rem :
    parse_path dbg ctx st true (path_start b) (nfirstn (path_start b) (ser b) ++ [47]) r = POk (s, hh, rem) ->
    with_query_and_fragment ovr ctx st (scheme_end b) (username_end b) (host_start b) (host_end b)
      (hosti b) (port b) (path_start b) s rem = POk u -> relative_arm ctx st b l u
| rel_path s1 x s3 hh rem :
    inp_is_empty l = false ->
    pop_path st (path_start b) (b_before_query b) = POk s1 ->
    parse_path dbg ctx st true (path_start b)
      (if (nlen s1 =? path_start b) && (st_is_special (scheme_type_of (b_scheme b)) || negb (inp_is_empty l))
       then s1 ++ [47] else s1) x = POk (s3, hh, rem) ->
    with_query_and_fragment ovr ctx st (scheme_end b) (username_end b) (host_start b) (host_end b)
      (hosti b) (port b) (path_start b) s3 rem = POk u -> relative_arm ctx st b l u.

Lemma parse_relative_case ctx st b l u :
  parse_relative dbg host_parse host_parse_opaque host_display ovr ctx st b l = POk u -> relative_arm ctx st b l u.
Proof.
  unfold parse_relative, inp_split_first. destruct (inp_next l) as [[c r]|] eqn:En.
  2:{ intros H. inversion H. apply rel_empty. reflexivity. }
  assert (inp_is_empty l = false) as He by (unfold inp_is_empty; rewrite En; reflexivity).
  destruct (c =? 63).
  { intros H. pb H a Ha. destruct a as [[s qs] fs]. inversion H. exact (rel_query ctx st b l _ s qs fs Ha eq_refl). }
  destruct (c =? 35); [apply rel_fragment|].
  destruct ((c =? 47) || (c =? 92) && st_is_special st).
  - destruct (inp_count_matching (fun d => (d =? 47) || (d =? 92) && st_is_special st) l) as [slashes remaining].
    destruct (2 <=? slashes).
    + cbv zeta. intros H. pb H x Hx.
      destruct (negb (st_is_special st)); [destruct (inp_split_prefix_str s_ss l)|]; exact (rel_ads ctx st b l u _ H).
    + cbv zeta. intros H. pb H a Ha. destruct a as [[s hh] rem]. exact (rel_slash ctx st b l u r s hh rem Ha H).
  - cbv zeta. intros H. pb H s1 Hs1. pb H a Ha. destruct a as [[s3 hh] rem].
    apply (rel_path ctx st b l u s1 (if c =? 47 then r else l) s3 hh rem He Hs1); [|exact H].
    rewrite match47 in Ha. destruct (c =? 47); exact Ha.
Qed.

(* the arms of parse_file.  With one slash the front is "file://", or comes from the base: its drive letter
   ("file:///C:") or its host *)
Inductive file_front (base_file : option url) : list N -> N -> host_internal -> Prop :=
| ff_plain : file_front base_file s_file_css 7 HI_None
| ff_drive b seg : base_file = Some b -> base_first_segment b = Some seg -> is_normalized_wdl seg = true ->
    file_front base_file (s_file_css ++ [47] ++ seg) 7 HI_None
| ff_host b hs : base_file = Some b -> host_str b = Some (Some hs) ->
    file_front base_file (s_file_css ++ hs) (nlen (s_file_css ++ hs)) (hosti b).

Inductive file_arm (ctx : context) (st : scheme_type) (base_file : option url) (l : list N) (u : url) : Prop :=
| fa_host an ser1 flag hi remaining ser2 hh rem2 ser4 qs fs :
    parse_file_host host_parse host_display s_file_css an = POk (ser1, flag, hi, remaining) ->
    (if flag then parse_path_start dbg ctx STFile (negb (hi_eqb hi HI_None)) ser1 remaining
     else parse_path dbg ctx STFile (negb (hi_eqb hi HI_None)) (nlen ser1) (ser1 ++ [47]) remaining)
      = POk (ser2, hh, rem2) ->
    (hh = false
     /\ parse_query_and_fragment ovr ctx st 4 (nfirstn 7 ser2 ++ nskipn (nlen ser1) ser2) rem2 = POk (ser4, qs, fs)
     /\ u = file_url ser4 7 7 HI_None qs fs)
    \/ (hh = true /\ parse_query_and_fragment ovr ctx st 4 ser2 rem2 = POk (ser4, qs, fs)
        /\ u = file_url ser4 7 (nlen ser1) hi qs fs) ->
    file_arm ctx st base_file l u
| fa_slash ser1 he hi ser2 hh rem ser3 qs fs : file_front base_file ser1 he hi ->
    parse_path dbg ctx STFile false he ser1 l = POk (ser2, hh, rem) ->
    parse_query_and_fragment ovr ctx st 4 ser2 rem = POk (ser3, qs, fs) ->
    u = file_url ser3 7 he hi qs fs -> file_arm ctx st base_file l u
| fa_empty b : base_file = Some b -> u = url_with b (b_before_fragment b) (query_start b) None ->
    file_arm ctx st base_file l u
| fa_query b s qs fs : base_file = Some b ->
    parse_query_and_fragment ovr ctx st (scheme_end b) (b_before_query b) l = POk (s, qs, fs) ->
    u = url_with b s qs fs -> file_arm ctx st base_file l u
| fa_fragment b : base_file = Some b -> fragment_only b l = POk u -> file_arm ctx st base_file l u
| fa_shorten b s1 s2 hh rem : base_file = Some b ->
    shorten_path STFile (path_start b) (b_before_query b) = POk s1 ->
    parse_path dbg ctx STFile true (path_start b) s1 l = POk (s2, hh, rem) ->
    with_query_and_fragment ovr ctx STFile (scheme_end b) (username_end b) (host_start b) (host_end b)
      (hosti b) (port b) (path_start b) s2 rem = POk u -> file_arm ctx st base_file l u
| fa_fresh s2 hh rem s3 qs fs :
    parse_path dbg ctx STFile false 7 (s_file_css ++ [47]) l = POk (s2, hh, rem) ->
    parse_query_and_fragment ovr ctx STFile 4 s2 rem = POk (s3, qs, fs) ->
    u = file_url s3 7 7 HI_None qs fs -> file_arm ctx st base_file l u.

Lemma parse_file_case ctx st base_file l u :
  parse_file dbg host_parse host_display ovr ctx st base_file l = POk u -> file_arm ctx st base_file l u.
Proof.
  unfold parse_file. intros H.
  destruct (inp_split_first l) as [fc af]. cbv zeta in H.
  assert (forall X, (' (s2, _, rem) <~ parse_path dbg ctx STFile false 7 (s_file_css ++ [47]) l ;;
                     ' (s3, qs, fs) <~ parse_query_and_fragment ovr ctx STFile 4 s2 rem ;;
                     POk (file_url s3 7 7 HI_None qs fs)) = POk X -> X = u -> file_arm ctx st base_file l u) as Hfresh.
  { intros X HX <-. pb HX a Ha. destruct a as [[s2 hh] rem]. pb HX c Hc. destruct c as [[s3 qs] fs].
    inversion HX. exact (fa_fresh ctx st base_file l _ s2 hh rem s3 qs fs Ha Hc eq_refl). }
  destruct (match fc with Some c => is_slash_or_bslash c | None => false end).
  { destruct (inp_split_first af) as [nc an].
    destruct (match nc with Some c => is_slash_or_bslash c | None => false end).
    - pb H a Ha. destruct a as [[[ser1 flag] hi] remaining]. pb H he Hhe.
      assert (he = nlen ser1) as -> by (unfold to_u32 in Hhe; destruct (nlen ser1 <=? U32_MAX_P); inversion Hhe; reflexivity).
      pb H b Hb. destruct b as [[ser2 hh] remaining2].
      destruct hh; cbv beta iota zeta in H; pb H c Hc; destruct c as [[ser4 qs] fs]; inversion H;
        apply (fa_host ctx st base_file l _ an ser1 flag hi remaining ser2 _ remaining2 ser4 qs fs Ha Hb);
        [right | left]; (split; [reflexivity | split; [exact Hc | reflexivity]]).
    - match type of H with context [if negb (starts_with_wdl_segment af) then ?a else ?b] =>
        destruct (if negb (starts_with_wdl_segment af) then a else b) as [[ser1 he] hi] eqn:E end.
      assert (file_front base_file ser1 he hi) as F.
      { destruct (negb (starts_with_wdl_segment af)); [|inversion E; subst; constructor].
        destruct base_file as [base|]; [|inversion E; subst; constructor].
        destruct (base_first_segment base) as [seg|] eqn:Eseg; [|inversion E; subst; constructor].
        destruct (is_normalized_wdl seg) eqn:Ew; [inversion E; subst; exact (ff_drive _ base seg eq_refl Eseg Ew)|].
        destruct (host_str base) as [[hs|]|] eqn:Eh; inversion E; subst; [exact (ff_host _ base hs eq_refl Eh) | constructor ..]. }
      pb H a Ha. destruct a as [[ser2 hh] remaining]. pb H c Hc. destruct c as [[ser3 qs] fs].
      inversion H. exact (fa_slash ctx st base_file l _ ser1 he hi ser2 hh remaining ser3 qs fs F Ha Hc eq_refl). }
  destruct base_file as [base|]; [|exact (Hfresh u H eq_refl)].
  destruct fc as [c|]; [|inversion H; exact (fa_empty ctx st (Some base) l _ base eq_refl eq_refl)].
  destruct (c =? 63).
  { pb H a Ha. destruct a as [[s qs] fs]. inversion H. exact (fa_query ctx st (Some base) l _ base s qs fs eq_refl Ha eq_refl). }
  destruct (c =? 35); [exact (fa_fragment ctx st (Some base) l u base eq_refl H)|].
  destruct (negb (starts_with_wdl_segment l)); [|exact (Hfresh u H eq_refl)].
  pb H s1 Hs1. pb H a Ha. destruct a as [[s2 hh] rem].
  exact (fa_shorten ctx st (Some base) l u base s1 s2 hh rem eq_refl Hs1 Ha H).
Qed.

End Arms.

(* what push_encoded (= utf8_percent_encode appended to the serialization) adds, per component set.
   `added` is in 0x21..0x7E and contains none of the listed delimiters; text = any code points. *)
Definition adds_clean (set : aset) (D : list N) : Prop :=
  forall ser text, exists added,
    push_encoded set ser text = ser ++ added /\ Forall ok_byte added /\ forall d, In d D -> ~ In d added.

Lemma adds_clean_of set D :
  covers_ctl_b set = true -> covers_list set D = true -> no_pct_hex_b D = true -> adds_clean set D.
Proof.
  intros H1 H2 H3 ser text. eexists. split; [reflexivity|].
  exact (pe_display_clean set D (utf8_encode text) H1 H2 H3).
Qed.


Lemma seg_split S D : covers_list S (37 :: D) = true -> aset_contains S 37 = true /\ covers_list S D = true.
Proof. unfold covers_list. cbn [forallb]. intros H. apply andb_true_iff in H. exact H. Qed.

Lemma path_enc_facts :
  adds_clean T_PATH [63; 35; 32; 34; 60; 62; 96; 123; 125]
  /\ adds_clean T_PATH_SEGMENT [47; 63; 35; 32; 34; 60; 62; 96; 123; 125]
  /\ adds_clean T_SPECIAL_PATH_SEGMENT [92; 47; 63; 35; 32; 34; 60; 62; 96; 123; 125]
  /\ aset_contains T_PATH_SEGMENT 37 = true /\ aset_contains T_SPECIAL_PATH_SEGMENT 37 = true
  /\ (forall text, usv_list text ->
        decode (pe_display T_PATH_SEGMENT (utf8_encode text)) = utf8_encode text
        /\ decode (pe_display T_SPECIAL_PATH_SEGMENT (utf8_encode text)) = utf8_encode text).
Proof.
  destruct (seg_split _ _ (proj2 T_PATH_SEGMENT_facts)) as [A1 B1].
  destruct (seg_split _ _ (proj2 T_SPECIAL_PATH_SEGMENT_facts)) as [A2 B2].
  split; [apply adds_clean_of; [apply T_PATH_facts | apply T_PATH_facts | reflexivity]|].
  split; [apply adds_clean_of; [apply T_PATH_SEGMENT_facts | exact B1 | reflexivity]|].
  split; [apply adds_clean_of; [apply T_SPECIAL_PATH_SEGMENT_facts | exact B2 | reflexivity]|].
  split; [exact A1|]. split; [exact A2|].
  intros text Hu. pose proof (utf8_encode_bytes text Hu) as Hb.
  rewrite !pe_display_is_encode by exact Hb.
  split; apply decode_encode; assumption.
Qed.

Definition okl (P : N -> Prop) (l : list N) : Prop := Forall P l.

Lemma decimal_rev_ok fuel : forall n, Forall ok_byte (decimal_rev fuel n).
Proof.
  induction fuel as [|f IH]; intros n; cbn [decimal_rev]; [constructor|].
  constructor; [unfold ok_byte; lia|]. destruct (n / 10 =? 0); [constructor | apply IH].
Qed.
Lemma decimal_ok n : Forall ok_byte (decimal n).
Proof. unfold decimal. apply Forall_rev, decimal_rev_ok. Qed.

Lemma parse_scheme_loop_ok ctx l : forall acc s r,
  parse_scheme_loop ctx acc l = Some (s, r) -> Forall ok_byte acc -> Forall ok_byte s.
Proof.
  induction l as [|c t IH]; intros acc s r H Ha; cbn [parse_scheme_loop] in H.
  - destruct (ctx_eqb ctx CSetter); [|discriminate]. inversion H; subst. apply Forall_rev. exact Ha.
  - destruct (is_tnl c); [eapply IH; eassumption|].
    destruct (is_lower c || is_digit c || (c =? 43) || (c =? 45) || (c =? 46)) eqn:E1.
    { eapply IH; [exact H|]. constructor; [|exact Ha]. unfold is_lower, is_digit, ok_byte in *. lia. }
    destruct (is_upper c) eqn:E2.
    { eapply IH; [exact H|]. constructor; [|exact Ha]. unfold is_upper, ok_byte in *. lia. }
    destruct (c =? 58); [|discriminate]. inversion H; subst. apply Forall_rev. exact Ha.
Qed.

Lemma parse_scheme_ok ctx l s r : parse_scheme ctx l = Some (s, r) -> Forall ok_byte s.
Proof.
  unfold parse_scheme. destruct (inp_starts_with_pred is_alpha l); [|discriminate].
  intros H. eapply parse_scheme_loop_ok; [exact H | constructor].
Qed.


Section Generic.
Variable P : N -> Prop.
Hypothesis P_ok : forall b, ok_byte b -> P b.
Notation okl := (okl P).

Lemma okl_ok l : Forall ok_byte l -> okl l.
Proof. intros H. eapply Forall_impl; [|exact H]. exact P_ok. Qed.
Lemma okl_app a b : okl a -> okl b -> okl (a ++ b).
Proof. intros. apply Forall_app. split; assumption. Qed.
Lemma okl_app_l a b : okl (a ++ b) -> okl a.
Proof. intros H. apply Forall_app in H. tauto. Qed.
Lemma okl_app_r a b : okl (a ++ b) -> okl b.
Proof. intros H. apply Forall_app in H. tauto. Qed.
Lemma okl_nfirstn n l : okl l -> okl (nfirstn n l).
Proof. apply Forall_firstn. Qed.
Lemma okl_nskipn n l : okl l -> okl (nskipn n l).
Proof. apply Forall_skipn. Qed.
Lemma okl_truncate n l : okl l -> okl (truncate l n).
Proof. apply Forall_firstn. Qed.
Lemma okl_drop_while f l : okl l -> okl (drop_while f l).
Proof.
  induction l as [|c r IH]; intros H; cbn [drop_while]; [constructor|].
  destruct (f c); [apply IH; inversion H; assumption | exact H].
Qed.
Lemma okl_rev l : okl l -> okl (rev l).
Proof. apply Forall_rev. Qed.
Lemma okl_slice_o l a b s : slice_o l a b = Some s -> okl l -> okl s.
Proof.
  unfold slice_o. destruct ((a <=? b) && (b <=? nlen l)); [|discriminate].
  intros H Hl. inversion H; subst. apply okl_nfirstn, okl_nskipn. exact Hl.
Qed.
Lemma okl_slice_from_o l a s : slice_from_o l a = Some s -> okl l -> okl s.
Proof.
  unfold slice_from_o. destruct (a <=? nlen l); [|discriminate].
  intros H Hl. inversion H; subst. apply okl_nskipn. exact Hl.
Qed.
Lemma okl_slice_to_o l a s : slice_to_o l a = Some s -> okl l -> okl s.
Proof.
  unfold slice_to_o. destruct (a <=? nlen l); [|discriminate].
  intros H Hl. inversion H; subst. apply okl_nfirstn. exact Hl.
Qed.

Ltac okt_step :=
  match goal with
  | |- _ => assumption
  | |- _ (_ ++ _) => apply okl_app
  | |- _ (nfirstn _ _) => apply okl_nfirstn
  | |- _ (nskipn _ _) => apply okl_nskipn
  | |- _ (truncate _ _) => apply okl_truncate
  | |- _ (drop_while _ _) => apply okl_drop_while
  | |- _ (rev _) => apply okl_rev
  | |- _ (if ?b then _ else _) => destruct b
  | |- _ ?l => lit_list l; solve [apply okl_ok; repeat constructor; unfold ok_byte; lia]
  | |- _ (_ :: _) => constructor; [solve [apply P_ok; unfold ok_byte; lia] |]
  end.
Ltac okt := repeat okt_step.

Lemma push_encoded_okl set ser text : covers_ctl set -> okl ser -> okl (push_encoded set ser text).
Proof. intros Hc H. unfold push_encoded. apply okl_app; [exact H | apply okl_ok, pe_display_ok; exact Hc]. Qed.

Lemma flush_part_okl set enc ser pr : covers_ctl set -> okl ser -> okl (flush_part set enc ser pr).
Proof. intros Hc H. unfold flush_part. apply okl_app; [exact H | apply okl_ok, pe_display_ok; exact Hc]. Qed.

Lemma parse_fragment_loop_okl l : forall ser pr, okl ser -> okl (parse_fragment_loop ser pr l).
Proof.
  induction l as [|c r IH]; intros ser pr H; cbn [parse_fragment_loop].
  - destruct pr; [exact H | apply flush_part_okl; [apply T_FRAGMENT_ctl | exact H]].
  - destruct (is_tnl c); apply IH; [apply flush_part_okl; [apply T_FRAGMENT_ctl | exact H] | exact H].
Qed.

Lemma parse_fragment_okl ser l : okl ser -> okl (parse_fragment ser l).
Proof. apply parse_fragment_loop_okl. Qed.

Lemma parse_query_loop_okl set enc iup l : covers_ctl set ->
  forall ser pr, okl ser -> okl (fst (parse_query_loop set enc iup ser pr l)).
Proof.
  intros Hc. induction l as [|c r IH]; intros ser pr H; cbn [parse_query_loop].
  - cbn [fst]. destruct pr; [exact H | apply flush_part_okl; assumption].
  - destruct (is_tnl c); [apply IH, flush_part_okl; assumption|].
    destruct ((c =? 35) && iup); [cbn [fst]; apply flush_part_okl; assumption | apply IH; exact H].
Qed.

Lemma query_set_ctl st : covers_ctl (query_set st).
Proof. unfold query_set. destruct (st_is_special st); [apply T_SPECIAL_QUERY_ctl | apply T_QUERY_ctl]. Qed.

Lemma parse_query_okl ovr ctx st se ser l : okl ser -> okl (fst (parse_query ovr ctx st se ser l)).
Proof. intros H. unfold parse_query. apply parse_query_loop_okl; [apply query_set_ctl | exact H]. Qed.

Lemma parse_query_and_fragment_okl ovr ctx st se ser l s qs fs :
  parse_query_and_fragment ovr ctx st se ser l = POk (s, qs, fs) -> okl ser -> okl s.
Proof.
  unfold parse_query_and_fragment. intros H Hs.
  destruct (inp_next l) as [[c r]|]; [|inversion H; subst; exact Hs].
  destruct (c =? 35).
  { pb H f0 Hf0. inversion H; subst. apply parse_fragment_okl. okt. }
  destruct (c =? 63); [|discriminate].
  pb H q0 Hq0.
  pose proof (parse_query_okl ovr ctx st se (ser ++ [63]) r ltac:(okt)) as Hq.
  destruct (parse_query ovr ctx st se (ser ++ [63]) r) as [ser1 rem]. cbn [fst] in Hq.
  destruct rem as [r2|].
  - pb H f0 Hf0. inversion H; subst. apply parse_fragment_okl. okt.
  - inversion H; subst. exact Hq.
Qed.

Lemma path_set_ctl ctx st : covers_ctl (path_set ctx st).
Proof.
  unfold path_set. destruct (ctx_eqb ctx CPathSegmentSetter); [|apply T_PATH_ctl].
  destruct (st_is_special st); [apply T_SPECIAL_PATH_SEGMENT_ctl | apply T_PATH_SEGMENT_ctl].
Qed.

Lemma push_pending_okl ctx st ser pr : okl ser -> okl (push_pending ctx st ser pr).
Proof.
  intros H. unfold push_pending. destruct pr; [exact H|]. apply push_encoded_okl; [apply path_set_ctl | exact H].
Qed.

Lemma pop_path_okl st ps ser s : pop_path st ps ser = POk s -> okl ser -> okl s.
Proof.
  unfold pop_path. intros H Hs. destruct (ps <? nlen ser); [|inversion H; subst; exact Hs].
  destruct (rfind 47 (nskipn ps ser)); [|discriminate].
  destruct (st_is_file st && is_normalized_wdl (nskipn (ps + n + 1) ser)); inversion H; subst; okt.
Qed.

Lemma shorten_path_okl st ps ser s : shorten_path st ps ser = POk s -> okl ser -> okl s.
Proof.
  unfold shorten_path. intros H Hs. destruct (nlen ser =? ps); [inversion H; subst; exact Hs|].
  destruct (st_is_file st && is_normalized_wdl (nskipn ps ser)); [inversion H; subst; exact Hs|].
  eapply pop_path_okl; eassumption.
Qed.

Lemma finish_segment_okl dbg st ps ser ss ews hh s hh' :
  finish_segment dbg st ps ser ss ews hh = POk (s, hh') -> okl ser -> okl s.
Proof.
  unfold finish_segment. cbv zeta. intros H Hs.
  pb H seg Hseg. apply of_option_ok in Hseg. pose proof (okl_slice_o _ _ _ _ Hseg Hs) as Hsg.
  destruct (is_double_dot seg).
  { pb H u_ Hu. pb H s3 Hs3. inversion H; subst.
    apply shorten_path_okl in Hs3; [|okt]. okt. }
  destruct (is_single_dot seg); [inversion H; subst; okt|].
  destruct (st_is_file st && (ss =? ps + 1) && is_wdl seg); [|inversion H; subst; exact Hs].
  inversion H; subst. destruct seg as [|c sg]; [exact Hs|].
  inversion Hsg as [|? ? Hc _]; subst.
  apply okl_app; [okt|]. constructor; [exact Hc|].
  constructor; [apply P_ok; unfold ok_byte; lia|]. okt.
Qed.

Lemma file_path_fixup_okl st ps ser : okl ser -> okl (file_path_fixup st ps ser).
Proof. intros H. unfold file_path_fixup. cbv zeta. okt. Qed.

Lemma parse_path_loop_okl dbg ctx st ps l : forall ser ss pr hh s hh' rem,
  parse_path_loop dbg ctx st ps l ser ss pr hh = POk (s, hh', rem) -> okl ser -> okl s.
Proof.
  induction l as [|c r IH]; intros ser ss pr hh s hh' rem H Hs; cbn [parse_path_loop] in H.
  - cbv zeta in H. pb H a Ha. destruct a as [s2 hh2]. inversion H; subst.
    apply file_path_fixup_okl. eapply finish_segment_okl; [exact Ha|]. apply push_pending_okl. exact Hs.
  - cbv zeta in H. destruct (is_tnl c).
    { eapply IH; [exact H|]. apply push_pending_okl. exact Hs. }
    destruct (negb (ctx_eqb ctx CPathSegmentSetter) && ((c =? 47) || (c =? 92) && st_is_special st)).
    { pb H a Ha. destruct a as [s2 hh2]. eapply IH; [exact H|].
      eapply finish_segment_okl; [exact Ha|]. apply okl_app; [apply push_pending_okl; exact Hs | okt]. }
    destruct (((c =? 63) || (c =? 35)) && ctx_eqb ctx CUrlParser).
    { pb H a Ha. destruct a as [s2 hh2]. inversion H; subst.
      apply file_path_fixup_okl. eapply finish_segment_okl; [exact Ha|]. apply push_pending_okl. exact Hs. }
    destruct (st_is_file st && (ps <? nlen ser) && is_normalized_wdl (nskipn (ps + 1) ser)).
    { eapply IH; [exact H|]. apply okl_app; [apply push_pending_okl; exact Hs | okt]. }
    eapply IH; [exact H | exact Hs].
Qed.

Lemma parse_path_okl dbg ctx st hh ps ser l s hh' rem :
  parse_path dbg ctx st hh ps ser l = POk (s, hh', rem) -> okl ser -> okl s.
Proof. unfold parse_path. apply parse_path_loop_okl. Qed.

Lemma parse_path_start_okl dbg ctx st hh ser l s hh' rem :
  parse_path_start dbg ctx st hh ser l = POk (s, hh', rem) -> okl ser -> okl s.
Proof.
  unfold parse_path_start. cbv zeta. intros H Hs.
  destruct (inp_split_first l) as [mc remaining].
  destruct (st_is_special st).
  - destruct (negb (ends_with_byte 47 ser)).
    + destruct mc as [c|]; [destruct (is_slash_or_bslash c)|];
        (eapply parse_path_okl; [exact H | okt]).
    + eapply parse_path_okl; [exact H | okt].
  - destruct mc as [c|].
    + destruct ((c =? 63) || (c =? 35)); [inversion H; subst; exact Hs|].
      destruct (c =? 47); (eapply parse_path_okl; [exact H | okt]).
    + eapply parse_path_okl; [exact H | okt].
Qed.

Lemma with_query_and_fragment_okl ovr ctx st se ue hs he hi port ps ser rem u :
  with_query_and_fragment ovr ctx st se ue hs he hi port ps ser rem = POk u -> okl ser -> okl (UrlRecord.ser u).
Proof.
  intros H Hs.
  destruct (with_query_and_fragment_steps ovr _ _ _ _ _ _ _ _ _ _ _ _ H) as (s1 & ps1 & s2 & qs & fs & F & Hq & ->).
  cbn [UrlRecord.ser]. eapply parse_query_and_fragment_okl; [exact Hq|]. destruct F; okt.
Qed.

(* fragment only *)
Lemma b_before_fragment_okl b : okl (ser b) -> okl (b_before_fragment b).
Proof. intros H. unfold b_before_fragment. destruct (fragment_start b); okt. Qed.
Lemma b_before_query_okl b : okl (ser b) -> okl (b_before_query b).
Proof. intros H. unfold b_before_query. destruct (query_start b); destruct (fragment_start b); okt. Qed.

Lemma fragment_only_okl base l u : fragment_only base l = POk u -> okl (ser base) -> okl (ser u).
Proof.
  unfold fragment_only. cbv zeta. intros H Hs. pb H f0 Hf0. inversion H; subst. cbn [ser].
  apply parse_fragment_okl. apply okl_app; [apply b_before_fragment_okl; exact Hs | okt].
Qed.

Lemma userinfo_loop_okl l : forall n ser uend hp hu s uend' hp' hu',
  userinfo_loop l n ser uend hp hu = POk (s, uend', hp', hu') -> okl ser -> okl s.
Proof.
  induction l as [|c r IH]; intros n ser uend hp hu s uend' hp' hu' H Hs; cbn [userinfo_loop] in H.
  - destruct (n =? 0); [inversion H; subst; exact Hs | discriminate].
  - destruct (n =? 0); [inversion H; subst; exact Hs|].
    destruct (is_tnl c); [eapply IH; eassumption|]. cbv zeta in H.
    destruct ((c =? 58) && match uend with None => true | Some _ => false end).
    + pb H ue Hue. destruct (0 <? n - 1); (eapply IH; [exact H | okt]).
    + eapply IH; [exact H|]. apply push_encoded_okl; [apply T_USERINFO_ctl | exact Hs].
Qed.

Lemma parse_userinfo_okl st ser l s ue rem :
  parse_userinfo st ser l = POk (s, ue, rem) -> okl ser -> okl s.
Proof.
  unfold parse_userinfo. intros H Hs.
  destruct (scan_last_at (st_is_special st) l 0 None) as [[n remaining]|].
  - destruct n as [|p].
    + destruct (inp_next remaining) as [[c r]|]; [|discriminate].
      destruct ((c =? 47) || (c =? 63) || (c =? 35) || st_is_special st && (c =? 92)); [discriminate|].
      pb H x Hx. inversion H; subst. exact Hs.
    + pb H a Ha. destruct a as [[[ser1 uend] hp] hu]. pb H x Hx. inversion H; subst.
      apply userinfo_loop_okl in Ha; [|exact Hs]. okt.
  - pb H x Hx. inversion H; subst. exact Hs.
Qed.

Lemma decimal_okl n : okl (decimal n).
Proof. apply okl_ok, decimal_ok. Qed.

End Generic.

Ltac okt_step_g P_ok :=
  match goal with
  | |- _ => assumption
  | |- _ (_ ++ _) => apply (okl_app _)
  | |- _ (nfirstn _ _) => apply okl_nfirstn
  | |- _ (nskipn _ _) => apply okl_nskipn
  | |- _ (truncate _ _) => apply okl_truncate
  | |- _ (drop_while _ _) => apply okl_drop_while
  | |- _ (rev _) => apply okl_rev
  | |- _ (decimal _) => apply (decimal_okl _ P_ok)
  | |- _ (if ?b then _ else _) => destruct b
  | |- _ ?l => lit_list l; solve [apply (okl_ok _ P_ok); repeat constructor; unfold ok_byte; lia]
  | |- _ (_ :: _) => constructor; [solve [apply P_ok; unfold ok_byte; lia] |]
  end.
Ltac okt P_ok := repeat okt_step_g P_ok.

(* where a host value written by the parser can come from *)
Definition host_origin (hp hpo : list N -> result host) (h : host) : Prop :=
  h = HDomain [] \/ (exists s, hp s = Ok h) \/ (exists s, hpo s = Ok h).
(* the hypothesis about the host functions: what they produce prints inside 0x21..0x7E *)
Definition HostOK (hp hpo : list N -> result host) (hd : host -> list N) : Prop :=
  forall h, host_origin hp hpo h -> Forall ok_byte (hd h).

(* the input classes that reach the opaque-path state *)
Definition opaque_branch (l : list N) : bool :=
  match inp_split_prefix_str s_ss l with
  | Some _ => false
  | None => match inp_split_prefix_char 47 l with Some _ => false | None => true end
  end.
Definition opaque_input (scheme l : list N) : bool :=
  match scheme_type_of scheme with STNotSpecial => opaque_branch l | _ => false end.
Definition url_opaque_input (input : list N) : bool :=
  match parse_scheme CUrlParser (input_new_trim_c0 input) with
  | Some (scheme, remaining) => opaque_input scheme remaining
  | None => false
  end.

Lemma okl_oks (P : N -> Prop) l : P 32 -> (forall b, ok_byte b -> P b) -> Forall ok_or_space l -> okl P l.
Proof.
  intros H32 Hok H. eapply Forall_impl; [|exact H]. intros b Hb. apply ok_or_space_iff in Hb.
  destruct Hb as [Hb| ->]; [apply Hok; exact Hb | exact H32].
Qed.

Lemma split_on_aux_okl (P : N -> Prop) sep l : forall cur, okl P cur -> okl P l -> Forall (okl P) (split_on_aux sep cur l).
Proof.
  induction l as [|x r IH]; intros cur Hc Hl; cbn [split_on_aux].
  - constructor; [apply Forall_rev; exact Hc | constructor].
  - inversion Hl; subst. destruct (x =? sep).
    + constructor; [apply Forall_rev; exact Hc | apply IH; [constructor | assumption]].
    + apply IH; [constructor; assumption | assumption].
Qed.

Section WithHosts.
Variable P : N -> Prop.
Hypothesis P_ok : forall b, ok_byte b -> P b.
Variable dbg : bool.
Variable host_parse host_parse_opaque : list N -> result host.
Variable host_display : host -> list N.
Variable ovr : option (list N -> list N).
Hypothesis HOK : HostOK host_parse host_parse_opaque host_display.
Notation okl := (okl P).
Notation origin := (host_origin host_parse host_parse_opaque).

Lemma host_display_okl h : origin h -> okl (host_display h).
Proof. intros H. apply (okl_ok _ P_ok), HOK. exact H. Qed.

(* the host parser takes its value from the function of the scheme class (the empty host stands for "localhost"
   in a file URL) *)
Lemma parse_host_class st l h rem : parse_host host_parse host_parse_opaque st l = POk (h, rem) ->
  h = HDomain [] \/ if st_is_special st then exists s, host_parse s = Ok h else exists s, host_parse_opaque s = Ok h.
Proof.
  unfold parse_host. destruct (st_is_file st) eqn:Ef.
  - assert (st_is_special st = true) as -> by (destruct st; try discriminate Ef; reflexivity).
    unfold get_file_host. destruct (file_host l) as [t rm]. intros H. pb H hst Hh. apply of_result_ok in Hh.
    inversion H; subst. destruct hst as [d|a|p]; try (right; exists t; exact Hh).
    destruct (list_eqb d s_localhost); [left; reflexivity | right; exists t; exact Hh].
  - destruct (host_scan (st_is_special st) false [] l) as [t rm].
    destruct (scheme_type_eqb st STSpecialNotFile && match t with [] => true | _ => false end); [discriminate|].
    destruct (st_is_special st); cbn [negb]; intros H; pb H hst Hh; apply of_result_ok in Hh; inversion H; subst;
      right; exists t; exact Hh.
Qed.

Lemma parse_host_origin st l h rem : parse_host host_parse host_parse_opaque st l = POk (h, rem) -> origin h.
Proof.
  intros H. destruct (parse_host_class st l h rem H) as [->|Hc]; [left; reflexivity|].
  destruct (st_is_special st); [right; left | right; right]; exact Hc.
Qed.

Lemma parse_file_host_okl ser l s flag hi rem :
  parse_file_host host_parse host_display ser l = POk (s, flag, hi, rem) -> okl ser -> okl s.
Proof.
  unfold parse_file_host. destruct (file_host l) as [t r]. intros H Hs.
  destruct t as [|x t]; [inversion H; subst; exact Hs|].
  pb H h0 Hh0. apply of_result_ok in Hh0.
  assert (okl (ser ++ host_display h0)) as Hd.
  { apply okl_app; [exact Hs | apply host_display_okl; right; left; eexists; exact Hh0]. }
  destruct h0 as [d| |]; try (inversion H; subst; exact Hd).
  destruct (list_eqb d s_localhost); inversion H; subst; assumption.
Qed.

Lemma parse_host_and_port_okl ctx st se ser l s he hi port rem :
  parse_host_and_port host_parse host_parse_opaque host_display ctx st se ser l = POk (s, he, hi, port, rem) ->
  okl ser -> okl s.
Proof.
  unfold parse_host_and_port. intros H Hs. pb H a Ha. destruct a as [h remaining]. cbv zeta in H.
  apply parse_host_origin in Ha.
  assert (okl (ser ++ host_display h)) as Hd by (apply okl_app; [exact Hs | apply host_display_okl; exact Ha]).
  pb H he0 Hhe. pb H u_ Hu.
  destruct (inp_split_prefix_char 58 remaining) as [r|].
  - pb H b Hb. destruct b as [p rem2].
    destruct p as [p|]; inversion H; subst; [|exact Hd]. okt P_ok.
  - inversion H; subst. exact Hd.
Qed.

Lemma after_double_slash_okl ctx st se ser l u :
  after_double_slash dbg host_parse host_parse_opaque host_display ovr ctx st se ser l = POk u ->
  okl ser -> okl (UrlRecord.ser u).
Proof.
  intros H Hs.
  destruct (after_double_slash_steps dbg host_parse host_parse_opaque host_display ovr _ _ _ _ _ _ H)
    as (ser1 & ue & rm & ser2 & he & hi & pt & rm2 & s3 & hh & rm3 & Ha & Hb & Hc & Hw).
  eapply with_query_and_fragment_okl; [exact P_ok | exact Hw|].
  eapply parse_path_start_okl; [exact P_ok | exact Hc|].
  eapply parse_host_and_port_okl; [exact Hb|].
  eapply parse_userinfo_okl; [exact P_ok | exact Ha|]. okt P_ok.
Qed.

Lemma parse_cannot_be_a_base_path_oks ctx l : forall ser,
  Forall ok_or_space ser -> Forall ok_or_space (fst (parse_cannot_be_a_base_path ctx ser l)).
Proof.
  induction l as [|c r IH]; intros ser Hs; cbn [parse_cannot_be_a_base_path]; [exact Hs|].
  destruct (is_tnl c); [apply IH; exact Hs|].
  destruct (((c =? 63) || (c =? 35)) && ctx_eqb ctx CUrlParser); [exact Hs|].
  apply IH. unfold push_encoded. apply Forall_app. split; [exact Hs|].
  apply pe_display_ok_space, T_CONTROLS_c0.
Qed.

Lemma parse_cannot_be_a_base_path_okl ctx l ser : P 32 ->
  okl ser -> okl (fst (parse_cannot_be_a_base_path ctx ser l)).
Proof.
  intros H32. revert ser. induction l as [|c r IH]; intros ser Hs; cbn [parse_cannot_be_a_base_path]; [exact Hs|].
  destruct (is_tnl c); [apply IH; exact Hs|].
  destruct (((c =? 63) || (c =? 35)) && ctx_eqb ctx CUrlParser); [exact Hs|].
  apply IH. unfold push_encoded. apply okl_app; [exact Hs|].
  apply okl_oks; [exact H32 | exact P_ok | apply pe_display_ok_space, T_CONTROLS_c0].
Qed.

Lemma parse_non_special_okl ctx st se ser l u :
  (opaque_branch l = true -> P 32) ->
  parse_non_special dbg host_parse host_parse_opaque host_display ovr ctx st se ser l = POk u ->
  okl ser -> okl (UrlRecord.ser u).
Proof.
  intros H32 H Hs.
  destruct (parse_non_special_case dbg host_parse host_parse_opaque host_display ovr ctx st se ser l u H)
    as [rem _ Ha | r s hh rem _ _ Hp Hw | Ess E47 Hw].
  - eapply after_double_slash_okl; eassumption.
  - eapply with_query_and_fragment_okl; [exact P_ok | exact Hw|].
    eapply parse_path_okl; [exact P_ok | exact Hp|]. okt P_ok.
  - eapply with_query_and_fragment_okl; [exact P_ok | exact Hw|].
    apply parse_cannot_be_a_base_path_okl; [|exact Hs]. apply H32. unfold opaque_branch. rewrite Ess, E47. reflexivity.
Qed.

Lemma b_scheme_okl b : okl (ser b) -> okl (b_scheme b).
Proof. intros H. unfold b_scheme. okt P_ok. Qed.

Lemma parse_relative_okl ctx st base l u :
  parse_relative dbg host_parse host_parse_opaque host_display ovr ctx st base l = POk u ->
  okl (ser base) -> okl (ser u).
Proof.
  intros H Hs.
  pose proof (b_before_fragment_okl _ base Hs) as Hbf. pose proof (b_before_query_okl _ base Hs) as Hbq.
  destruct (parse_relative_case dbg host_parse host_parse_opaque host_display ovr ctx st base l u H)
    as [-> | s qs fs Hq -> | Hf | x Ha | r s hh rem Hp Hw | s1 x s3 hh rem _ Hs1 Hp Hw].
  - exact Hbf.
  - eapply parse_query_and_fragment_okl; [exact P_ok | exact Hq | exact Hbq].
  - eapply fragment_only_okl; eassumption.
  - eapply after_double_slash_okl; [exact Ha|]. okt P_ok.
  - eapply with_query_and_fragment_okl; [exact P_ok | exact Hw|].
    eapply parse_path_okl; [exact P_ok | exact Hp|]. okt P_ok.
  - eapply with_query_and_fragment_okl; [exact P_ok | exact Hw|].
    eapply parse_path_okl; [exact P_ok | exact Hp|].
    eapply pop_path_okl in Hs1; [|exact Hbq]. okt P_ok.
Qed.

Lemma okl_file_css : okl s_file_css.
Proof.
  apply (okl_ok _ P_ok). unfold s_file_css, s_file, s_css. cbn [app].
  repeat constructor; unfold ok_byte; lia.
Qed.

Lemma path_okl b p : path b = Some p -> okl (ser b) -> okl p.
Proof.
  unfold path, u_slice_from, u_slice. intros H Hs.
  destruct (query_start b); destruct (fragment_start b);
    first [eapply okl_slice_o; eassumption | eapply okl_slice_from_o; eassumption].
Qed.

Lemma base_first_segment_okl b seg : base_first_segment b = Some seg -> okl (ser b) -> okl seg.
Proof.
  unfold base_first_segment. intros H Hs. destruct (path b) as [p|] eqn:Ep; [|discriminate].
  apply path_okl in Ep; [|exact Hs]. destruct p as [|x r]; [discriminate|].
  rewrite match47 in H. destruct (x =? 47); [|discriminate].
  inversion Ep as [|? ? _ Hr]; subst.
  pose proof (split_on_aux_okl P 47 r [] ltac:(constructor) Hr) as F. fold (split_on 47 r) in F.
  destruct (split_on 47 r) as [|s0 t]; [discriminate|]. inversion H; subst. inversion F; assumption.
Qed.

Lemma host_str_okl b hs : host_str b = Some (Some hs) -> okl (ser b) -> okl hs.
Proof.
  unfold host_str, u_slice. intros H Hs. destruct (has_host b); [|discriminate].
  destruct (slice_o (ser b) (host_start b) (host_end b)) as [x|] eqn:E; cbn [bindo] in H; [|discriminate].
  inversion H; subst. eapply okl_slice_o; eassumption.
Qed.

Lemma parse_file_okl ctx st base_file l u :
  parse_file dbg host_parse host_display ovr ctx st base_file l = POk u ->
  match base_file with Some b => okl (ser b) | None => True end -> okl (ser u).
Proof.
  intros H Hbase.
  destruct (parse_file_case dbg host_parse host_display ovr ctx st base_file l u H)
    as [an ser1 flag hi remaining ser2 hh rem2 ser4 qs fs Ha Hb Hc
       | ser1 he hi ser2 hh rem ser3 qs fs F Hp Hq ->
       | b -> -> | b s qs fs -> Hq -> | b -> Hf | b s1 s2 hh rem -> Hs1 Hp Hw
       | s2 hh rem s3 qs fs Hp Hq ->].
  - apply parse_file_host_okl in Ha; [|apply okl_file_css].
    assert (okl ser2) as H2.
    { destruct flag.
      - eapply parse_path_start_okl; [exact P_ok | exact Hb | exact Ha].
      - eapply parse_path_okl; [exact P_ok | exact Hb|]. okt P_ok. }
    destruct Hc as [(_ & Hc & ->)|(_ & Hc & ->)]; cbn [ser file_url];
      (eapply parse_query_and_fragment_okl; [exact P_ok | exact Hc|]); okt P_ok.
  - cbn [ser file_url]. eapply parse_query_and_fragment_okl; [exact P_ok | exact Hq|].
    eapply parse_path_okl; [exact P_ok | exact Hp|]. pose proof okl_file_css as F0.
    destruct F as [|b seg -> Eseg _|b hs -> Eh]; [exact F0 | |].
    + apply base_first_segment_okl in Eseg; [|exact Hbase]. okt P_ok.
    + apply host_str_okl in Eh; [|exact Hbase]. okt P_ok.
  - exact (b_before_fragment_okl _ b Hbase).
  - cbn [ser url_with]. eapply parse_query_and_fragment_okl; [exact P_ok | exact Hq | exact (b_before_query_okl _ b Hbase)].
  - eapply fragment_only_okl; eassumption.
  - eapply with_query_and_fragment_okl; [exact P_ok | exact Hw|].
    eapply parse_path_okl; [exact P_ok | exact Hp|].
    eapply shorten_path_okl; [exact Hs1 | exact (b_before_query_okl _ b Hbase)].
  - cbn [ser file_url]. eapply parse_query_and_fragment_okl; [exact P_ok | exact Hq|].
    eapply parse_path_okl; [exact P_ok | exact Hp|]. apply okl_app; [apply okl_file_css | okt P_ok].
Qed.

Theorem parse_url_okl base input u :
  (url_opaque_input input = true -> P 32) ->
  parse_url dbg host_parse host_parse_opaque host_display ovr base input = POk u ->
  match base with Some b => okl (ser b) | None => True end -> okl (ser u).
Proof.
  intros H32 H Hbase.
  destruct (parse_url_case dbg host_parse host_parse_opaque host_display ovr base input u H)
    as [b l -> Hf | bf l Hbf Hf | sch l0 l Es _ Ha | b l -> _ _ Hr | sch l Es Est Hn].
  - exact (fragment_only_okl P P_ok b l u Hf Hbase).
  - eapply parse_file_okl; [exact Hf|]. destruct bf as [b|]; [|exact I]. destruct Hbf as [-> _]. exact Hbase.
  - eapply after_double_slash_okl; [exact Ha|]. apply okl_app; [|okt P_ok].
    exact (okl_ok _ P_ok _ (parse_scheme_ok _ _ _ _ Es)).
  - eapply parse_relative_okl; [exact Hr | exact Hbase].
  - eapply parse_non_special_okl; [|exact Hn|].
    + intros Hob. apply H32. unfold url_opaque_input, opaque_input. rewrite Es, Est. exact Hob.
    + apply okl_app; [|okt P_ok]. exact (okl_ok _ P_ok _ (parse_scheme_ok _ _ _ _ Es)).
Qed.

End WithHosts.
