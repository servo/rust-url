(* Proofs/C09_Host.v - Host::parse_opaque, Display round trips, domain results. *)
From RU Require Import Base.Prelude Base.Utf8 Base.Utf8Facts Model.AsciiSet Gen.Tables Model.PercentEncoding
  Model.HostT Model.Host Proofs.C14_Enc Proofs.C14_Views Proofs.C09_V6 Proofs.C09_V6rt Proofs.C09_V4 Proofs.C09_Wf
  Spec.WhatwgHost.

Lemma invalid_host_is_spec : T_HOST_INVALID_HOST_CHARS = Spec.forbidden_host_code_points.
Proof. reflexivity. Qed.

Lemma controls_sweep :
  all_below 256 (fun b => Bool.eqb (should_encode T_CONTROLS b) ((b <=? 31) || (126 <? b))) = true.
Proof. vm_compute. reflexivity. Qed.

Lemma controls_spec b : b < 256 -> should_encode T_CONTROLS b = ((b <=? 31) || (126 <? b)).
Proof. intros H. apply eqb_prop. exact (all_below_spec _ _ controls_sweep b H). Qed.

(* every ASCII code point outside the deny list handed to idna is lower case (not upper case) and
   not a forbidden domain code point *)
Lemma denied_sweep :
  all_below 128 (fun c => memb c T_HOST_IDNA_DENIED
                          || (negb (Spec.forbidden_domain_code_point c) && negb (is_upper c))) = true.
Proof. vm_compute. reflexivity. Qed.

(* and conversely the deny list is exactly: forbidden domain code points and upper-case letters *)
Lemma denied_exact :
  all_below 128 (fun c => Bool.eqb (memb c T_HOST_IDNA_DENIED) (Spec.forbidden_domain_code_point c || is_upper c)) = true.
Proof. vm_compute. reflexivity. Qed.

Lemma utf8_encode_ascii s : ascii s -> utf8_encode s = s.
Proof.
  induction s as [|c s IH]; intros H; [reflexivity|]. inversion H as [|? ? Hc Hs]; subst.
  unfold utf8_encode in *. cbn [flat_map]. rewrite IH by exact Hs. unfold utf8_encode1, is_ascii in *.
  replace (c <? 128) with true by lia. reflexivity.
Qed.

Lemma utf8_encode1_high c b : 128 <= c -> In b (utf8_encode1 c) -> 128 <= b.
Proof.
  intros Hc. unfold utf8_encode1. replace (c <? 128) with false by lia.
  destruct (c <? 2048); [|destruct (c <? 65536)]; cbn [In]; intros H;
    repeat (destruct H as [H|H]; [subst; lia|]); contradiction.
Qed.

Lemma utf8_ascii_origin s b : In b (utf8_encode s) -> b < 128 -> In b s.
Proof.
  induction s as [|c s IH]; intros Hin Hb; [exact Hin|].
  unfold utf8_encode in Hin. cbn [flat_map] in Hin. apply in_app_or in Hin. destruct Hin as [Hin|Hin].
  - destruct (c <? 128) eqn:E.
    + unfold utf8_encode1 in Hin. rewrite E in Hin. destruct Hin as [->|[]]. left. reflexivity.
    + pose proof (utf8_encode1_high c b ltac:(lia) Hin). lia.
  - right. apply IH; assumption.
Qed.

Definition c0_encode (bs : list N) : list N :=
  flat_map (fun b => if (b <=? 31) || (126 <? b) then [37; hex_upper (b / 16); hex_upper (b mod 16)] else [b]) bs.

Lemma encode_controls bs : bytes bs -> encode T_CONTROLS bs = c0_encode bs.
Proof.
  induction bs as [|b r IH]; intros H; [reflexivity|]. inversion H as [|? ? Hb Hr]; subst.
  unfold encode, c0_encode in *. cbn [flat_map]. rewrite IH by exact Hr.
  rewrite controls_spec by exact Hb. reflexivity.
Qed.

Theorem parse_opaque_spec input : usv_list input -> starts_with 91 input = false ->
  host_parse_opaque input =
  if existsb (fun c => memb c Spec.forbidden_host_code_points) input then Err InvalidDomainCharacter
  else Ok (HDomain (c0_encode (utf8_encode input))).
Proof.
  intros Hu Hs. unfold host_parse_opaque, host_parse_opaque_x. rewrite Hs.
  unfold is_invalid_host_char. rewrite invalid_host_is_spec.
  destruct (existsb (fun c => memb c Spec.forbidden_host_code_points) input); [reflexivity|].
  cbn [xr_result]. rewrite pe_display_is_encode by (apply utf8_encode_bytes; exact Hu).
  rewrite encode_controls by (apply utf8_encode_bytes; exact Hu). reflexivity.
Qed.

(* characters of an opaque host that the parser returns *)
Definition good_opaque_char (b : N) : bool :=
  (b <? 128) && negb (should_encode T_CONTROLS b) && negb (is_invalid_host_char b).

Lemma hex_upper_good : all_below 16 (fun d => good_opaque_char (hex_upper d)) = true.
Proof. vm_compute. reflexivity. Qed.

Lemma encode_good bs : bytes bs ->
  (forall b, In b bs -> b < 128 -> is_invalid_host_char b = false) ->
  forallb good_opaque_char (encode T_CONTROLS bs) = true.
Proof.
  induction bs as [|b r IH]; intros Hb Hin; [reflexivity|]. inversion Hb as [|? ? Hb1 Hr]; subst.
  rewrite encode_cons, forallb_app. rewrite IH; [|exact Hr|intros; apply Hin; [right|]; assumption].
  rewrite andb_true_r. unfold enc1. destruct (should_encode T_CONTROLS b) eqn:E.
  - unfold enc_byte_spec. cbn [forallb]. unfold is_byte in Hb1.
    rewrite (all_below_spec _ _ hex_upper_good (b / 16)) by lia.
    rewrite (all_below_spec _ _ hex_upper_good (b mod 16)) by lia. reflexivity.
  - cbn [forallb]. rewrite andb_true_r. unfold good_opaque_char. rewrite E.
    assert (b < 128). { unfold should_encode in E. destruct (128 <=? b) eqn:E2; [discriminate|lia]. }
    rewrite Hin; [|left; reflexivity|assumption]. replace (b <? 128) with true by lia. reflexivity.
Qed.

Lemma good_opaque_fixed d : forallb good_opaque_char d = true -> host_parse_opaque_x d = XOk (HDomain d).
Proof.
  intros H. rewrite forallb_forall in H.
  assert (Ha : ascii d).
  { apply Forall_forall. intros b Hb. specialize (H b Hb). unfold good_opaque_char in H. unfold is_ascii. lia. }
  assert (Hi : existsb is_invalid_host_char d = false).
  { destruct (existsb is_invalid_host_char d) eqn:E; [|reflexivity]. apply existsb_exists in E.
    destruct E as (b & Hb & Hinv). specialize (H b Hb). unfold good_opaque_char in H. rewrite Hinv in H.
    rewrite andb_false_r in H. discriminate. }
  unfold host_parse_opaque_x.
  assert (Hs : starts_with 91 d = false).
  { destruct d as [|c d']; [reflexivity|]. cbn [starts_with]. destruct (c =? 91) eqn:E; [|reflexivity].
    apply N.eqb_eq in E. subst c. cbn [existsb] in Hi. apply orb_false_iff in Hi. destruct Hi as [Hi _].
    vm_compute in Hi. discriminate. }
  rewrite Hs, Hi. rewrite utf8_encode_ascii by exact Ha.
  rewrite pe_display_is_encode by (apply ascii_bytes; exact Ha).
  replace (encode T_CONTROLS d) with d; [reflexivity|]. symmetry. apply encode_id_iff.
  apply Forall_forall. intros b Hb. specialize (H b Hb). unfold good_opaque_char in H.
  destruct (should_encode T_CONTROLS b); [|reflexivity]. rewrite andb_false_r in H. discriminate.
Qed.

(* what Display writes between the brackets: lower-case hex digits and ':' *)
Lemma write_loop_Forall (P : N -> Prop) : P 58 -> (forall c, is_lower_hex c = true -> P c) ->
  forall f segs cs ce i out,
  Forall (fun x => x < 65536) segs -> write_ipv6_loop f segs cs ce i = Some out -> Forall P out.
Proof.
  intros P58 Ph. induction f as [|f IH]; intros segs cs ce i out Hs H; cbn [write_ipv6_loop] in H.
  - destruct (8 <=? i)%Z; [inversion H; constructor | discriminate].
  - destruct (8 <=? i)%Z; [inversion H; constructor|].
    assert (Piece : forall j o, match nth_error segs (Z.to_nat j) with
                            | Some v => match write_ipv6_loop f segs cs ce (j + 1) with
                                        | Some rest => Some (hex4 v ++ (if (j <? 7)%Z then [58] else []) ++ rest)
                                        | None => None end
                            | None => None end = Some o -> Forall P o).
    { intros j o Hj. destruct (nth_error segs (Z.to_nat j)) as [v|] eqn:En; [|discriminate].
      destruct (write_ipv6_loop f segs cs ce (j + 1)) as [rest|] eqn:Er; [|discriminate].
      inversion Hj; subst. apply Forall_app. split.
      - assert (Hv : v < 65536) by (rewrite Forall_forall in Hs; apply Hs; eapply nth_error_In; exact En).
        apply Forall_forall. intros c Hc. apply Ph. pose proof (hex4_lower v Hv) as Hl. rewrite forallb_forall in Hl. exact (Hl c Hc).
      - apply Forall_app. split; [destruct (j <? 7)%Z; repeat constructor; exact P58|]. eapply IH; eassumption. }
    destruct (i =? cs)%Z.
    + destruct (ce <? 8)%Z.
      * match type of H with match ?X with _ => _ end = _ => destruct X as [rest|] eqn:E; [|discriminate] end.
        inversion H; subst. apply Piece in E. cbn [app]. constructor; [exact P58|].
        destruct (i =? 0)%Z; [constructor; [exact P58|]|]; exact E.
      * inversion H; subst. destruct (i =? 0)%Z; repeat constructor; exact P58.
    + apply Piece in H. exact H.
Qed.

Lemma write_ipv6_Forall (P : N -> Prop) a : P 58 -> (forall c, is_lower_hex c = true -> P c) ->
  Forall (fun x => x < 65536) a -> Forall P (write_ipv6 a).
Proof.
  intros P58 Ph H. unfold write_ipv6, write_ipv6_o. destruct (longest_zero_sequence a) as [cs ce].
  destruct (write_ipv6_loop 9 a cs ce 0) as [out|] eqn:E; [|constructor].
  exact (write_loop_Forall P P58 Ph 9 a cs ce 0%Z out H E).
Qed.

Lemma write_ipv6_ascii a : Forall (fun x => x < 65536) a -> ascii (write_ipv6 a).
Proof. apply write_ipv6_Forall; unfold is_ascii, is_lower_hex, is_digit; lia. Qed.

Lemma bracketed_write a : wf8 a -> bracketed ([91] ++ write_ipv6 a ++ [93]) = XOk (HIpv6 a).
Proof.
  intros [Hl Hb]. unfold bracketed, ends_with. cbn [app]. 
  cbn [rev]. rewrite rev_app_distr. cbn [rev app]. replace (93 =? 93) with true by reflexivity. cbn [negb tl].
  rewrite removelast_last. rewrite utf8_encode_ascii by (apply write_ipv6_ascii; exact Hb).
  rewrite parse_write_ipv6 by assumption. reflexivity.
Qed.

Lemma bracketed_ok input h : bracketed input = XOk h -> exists a, h = HIpv6 a /\ wf8 a.
Proof.
  unfold bracketed. destruct (negb (ends_with 93 input)); [discriminate|].
  destruct (parse_ipv6addr (utf8_encode (removelast (tl input)))) as [a| | |] eqn:E; cbn [xr_map]; try discriminate.
  intros H. inversion H; subst. exists a. split; [reflexivity|]. eapply parse_ipv6addr_wf. exact E.
Qed.

Theorem opaque_display_rt input h : usv_list input ->
  host_parse_opaque_x input = XOk h -> host_parse_opaque_x (host_display h) = XOk h.
Proof.
  intros Hu H. unfold host_parse_opaque_x in H. destruct (starts_with 91 input) eqn:Es.
  - destruct (bracketed_ok _ _ H) as (a & -> & Hw). cbn [host_display]. unfold host_parse_opaque_x.
    cbn [app starts_with]. replace (91 =? 91) with true by reflexivity. apply (bracketed_write a Hw).
  - destruct (existsb is_invalid_host_char input) eqn:Ei; [discriminate|]. inversion H; subst.
    cbn [host_display]. apply good_opaque_fixed.
    rewrite pe_display_is_encode by (apply utf8_encode_bytes; exact Hu).
    apply encode_good; [apply utf8_encode_bytes; exact Hu|].
    intros b Hb Hlt. pose proof (utf8_ascii_origin _ _ Hb Hlt) as Hin.
    destruct (is_invalid_host_char b) eqn:E; [|reflexivity].
    assert (existsb is_invalid_host_char input = true) by (apply existsb_exists; exists b; tauto). congruence.
Qed.

(* The oracle hypothesis: what the proofs of the display round trip use about the function idna_to_ascii that
   Host::parse calls - nothing else about IDNA enters.  idna_out makes the domain text survive the checks of a second
   Host::parse, idna_fix makes the second call return the same domain, idna_v4 makes Display of an Ipv4Addr parse
   back as that address.  The record is satisfiable (idna_clean_ok, Proofs/C16_RT6Model.v), but the IDNA model does
   NOT satisfy idna_fix: an answer in the class Known_C10_long is refused (model_long_not_IdnaOK,
   class_answer_not_IdnaOK in Proofs/C09_LongWit.v).  So special_display_rt / domain_display_rt below are theorems
   about the host model under a hypothesis, not about the crate; the hypothesis that the uts46 model meets is IdnaOK2
   (Proofs/C09_Long.v, C09_Uts46.v), with IdnaOK2 idna -> IdnaOK (cap idna). *)
Definition dom_char_ok (c : N) : Prop := c < 128 /\ memb c T_HOST_IDNA_DENIED = false.

Record IdnaOK (idna : list N -> option (list N)) : Prop := {
  idna_out : forall bs d, idna bs = Some d -> Forall dom_char_ok d;      (* ASCII outside the deny list *)
  idna_fix : forall bs d, idna bs = Some d -> idna d = Some d;           (* outputs are fixed points *)
  idna_v4 : forall a, a < 4294967296 -> idna (ipv4_display a) = Some (ipv4_display a)
}.

Lemma dom_char_facts c : dom_char_ok c ->
  c < 128 /\ is_upper c = false /\ Spec.forbidden_domain_code_point c = false /\ c <> 37 /\ c <> 91.
Proof.
  intros [H1 H2]. pose proof (all_below_spec _ _ denied_exact c H1) as S. cbv beta in S.
  rewrite H2 in S. apply eqb_prop in S. symmetry in S. apply orb_false_iff in S. destruct S as [S1 S2].
  repeat split; try assumption.
  - intros ->. vm_compute in S1. discriminate.
  - intros ->. vm_compute in S1. discriminate.
Qed.

Lemma decode_no_pct d : ~ In 37 d -> decode d = d.
Proof.
  induction d as [|c d IH]; intros H; [apply decode_nil|].
  rewrite decode_other by (intros ->; apply H; left; reflexivity).
  rewrite IH; [reflexivity|]. intros Hin. apply H. right. exact Hin.
Qed.

Section Idna.
  Variable idna : list N -> option (list N).

  (* the three ways Host::parse succeeds *)
  Lemma host_parse_x_cases input h : host_parse_x idna input = XOk h ->
    match h with
    | HDomain d => idna (decode (utf8_encode input)) = Some d /\ d <> [] /\ ends_in_a_number d = false
    | HIpv4 a => exists dom, idna (decode (utf8_encode input)) = Some dom /\ parse_ipv4addr dom = XOk a
    | HIpv6 ps => starts_with 91 input = true /\ wf8 ps
    end.
  Proof.
    unfold host_parse_x. destruct (starts_with 91 input).
    { intros H. destruct (bracketed_ok _ _ H) as (a & -> & Hw). exact (conj eq_refl Hw). }
    destruct (idna (decode (utf8_encode input))) as [dom|]; [|discriminate].
    destruct dom as [|c dom']; [discriminate|].
    destruct (ends_in_a_number (c :: dom')) eqn:Ee.
    - destruct (parse_ipv4addr (c :: dom')) as [a| | |] eqn:E4; cbn [xr_map]; try discriminate.
      intros H. inversion H; subst. exists (c :: dom'). exact (conj eq_refl E4).
    - intros H. inversion H; subst. repeat split; [discriminate | exact Ee].
  Qed.

  Theorem parse_domain input d : host_parse_x idna input = XOk (HDomain d) ->
    idna (decode (utf8_encode input)) = Some d /\ d <> [] /\ ends_in_a_number d = false.
  Proof. exact (host_parse_x_cases input (HDomain d)). Qed.

  (* a host that ends in a number is never returned as a domain *)
  Theorem parse_number_not_domain input dom : starts_with 91 input = false ->
    idna (decode (utf8_encode input)) = Some dom -> ends_in_a_number dom = true ->
    host_parse_x idna input = xr_map HIpv4 (parse_ipv4addr dom).
  Proof.
    intros Hs Hi He. unfold host_parse_x. rewrite Hs, Hi, He.
    destruct dom; [vm_compute in He; discriminate | reflexivity].
  Qed.

  Hypothesis OK : IdnaOK idna.

  Lemma domain_fixed d : (exists bs, idna bs = Some d) -> d <> [] -> ends_in_a_number d = false ->
    host_parse_x idna d = XOk (HDomain d).
  Proof.
    intros (bs & Hb) Hn He.
    pose proof (idna_out idna OK bs d Hb) as Hout. pose proof (idna_fix idna OK bs d Hb) as Hfix.
    assert (Ha : ascii d).
    { eapply Forall_impl; [|exact Hout]. intros c Hc. destruct (dom_char_facts c Hc). assumption. }
    assert (H37 : ~ In 37 d).
    { intros Hin. rewrite Forall_forall in Hout. destruct (dom_char_facts 37 (Hout 37 Hin)) as (_ & _ & _ & H & _). congruence. }
    unfold host_parse_x.
    assert (Hs : starts_with 91 d = false).
    { destruct d as [|c d']; [reflexivity|]. cbn [starts_with]. inversion Hout as [|? ? Hc _]; subst.
      destruct (dom_char_facts c Hc) as (_ & _ & _ & _ & H). apply N.eqb_neq. exact H. }
    rewrite Hs. rewrite utf8_encode_ascii by exact Ha. rewrite decode_no_pct by exact H37. rewrite Hfix, He.
    destruct d; [congruence|reflexivity].
  Qed.

  Theorem domain_display_rt input d : host_parse_x idna input = XOk (HDomain d) ->
    host_parse_x idna (host_display (HDomain d)) = XOk (HDomain d).
  Proof.
    intros H. destruct (parse_domain input d H) as (H1 & H2 & H3). cbn [host_display].
    apply domain_fixed; eauto.
  Qed.

  Theorem domain_form input d : host_parse_x idna input = XOk (HDomain d) ->
    Forall (fun c => c < 128 /\ is_upper c = false /\ Spec.forbidden_domain_code_point c = false) d.
  Proof.
    intros H. destruct (parse_domain input d H) as (H1 & _).
    pose proof (idna_out idna OK _ d H1) as Hout. eapply Forall_impl; [|exact Hout].
    intros c Hc. destruct (dom_char_facts c Hc) as (? & ? & ? & _). tauto.
  Qed.
End Idna.

Definition dec_u8_ok (x : N) : bool :=
  let ds := dec_u8 x in
  forallb is_digit ds && negb (match ds with [] => true | _ => false end)
  && (match ds with c :: _ :: _ => negb (c =? 48) | _ => true end)
  && (horner 10 ds 0 =? x).

Lemma dec_u8_sweep : all_below 256 dec_u8_ok = true.
Proof. vm_compute. reflexivity. Qed.

Lemma dec_u8_part x : x < 256 -> part_ok (Dec, dec_u8 x) /\ pvalue (Dec, dec_u8 x) = x.
Proof.
  intros Hx. pose proof (all_below_spec _ _ dec_u8_sweep x Hx) as S. unfold dec_u8_ok in S. cbv zeta in S.
  repeat (apply andb_true_iff in S; destruct S as [S ?]).
  unfold part_ok, pvalue. cbn [fst snd digits_ok radix_n]. repeat split.
  - exact S.
  - destruct (dec_u8 x); [discriminate|discriminate].
  - destruct (dec_u8 x) as [|c [|c2 r]]; try exact I. intros ->. discriminate.
  - apply N.eqb_eq. assumption.
Qed.

Definition octets (a : N) : list N := [a / 16777216; (a / 65536) mod 256; (a / 256) mod 256; a mod 256].
Definition dec_parts (a : N) : list (radix * list N) := map (fun x => (Dec, dec_u8 x)) (octets a).

Lemma ipv4_display_spell a : ipv4_display a = spell_addr (dec_parts a) false.
Proof. unfold ipv4_display, spell_addr, dec_parts, octets. cbn [map join_dot spell fst snd app]. rewrite app_nil_r. reflexivity. Qed.

Lemma octets_lt a : a < 4294967296 -> Forall (fun x => x < 256) (octets a).
Proof. intros H. unfold octets. repeat constructor; lia. Qed.

Lemma dec_parts_ok a : a < 4294967296 ->
  Forall part_ok (dec_parts a) /\ map pvalue (dec_parts a) = octets a.
Proof.
  intros H. pose proof (octets_lt a H) as Ho. unfold dec_parts. split.
  - apply Forall_forall. intros p Hp. apply in_map_iff in Hp. destruct Hp as (x & <- & Hx).
    rewrite Forall_forall in Ho. apply dec_u8_part. apply Ho. exact Hx.
  - rewrite map_map. rewrite <- (map_id (octets a)) at 2. apply map_ext_in. intros x Hx.
    rewrite Forall_forall in Ho. apply dec_u8_part. apply Ho. exact Hx.
Qed.

Theorem parse_ipv4_display a : a < 4294967296 -> parse_ipv4addr (ipv4_display a) = XOk a.
Proof.
  intros H. destruct (dec_parts_ok a H) as [H1 H2]. rewrite ipv4_display_spell.
  rewrite parse_ipv4addr_value; [|exact H1|].
  - rewrite H2. unfold octets, positional. f_equal. lia.
  - rewrite H2. unfold octets, in_range. lia.
Qed.

Lemma ipv4_display_digits a : a < 4294967296 ->
  Forall (fun c => is_digit c = true \/ c = 46) (ipv4_display a) /\ ipv4_display a <> []
  /\ ends_in_a_number (ipv4_display a) = true.
Proof.
  intros H. pose proof (octets_lt a H) as Ho. unfold octets in Ho.
  repeat match goal with Hx : Forall _ (_ :: _) |- _ => inversion Hx; clear Hx; subst end.
  assert (D : forall x, x < 256 -> forallb is_digit (dec_u8 x) = true /\ dec_u8 x <> []).
  { intros x Hx. destruct (dec_u8_part x Hx) as [(P1 & P2 & _) _]. cbn [fst snd] in *. tauto. }
  assert (Dd : forall x, x < 256 -> Forall (fun c => is_digit c = true \/ c = 46) (dec_u8 x)).
  { intros x Hx. destruct (D x Hx) as [Hd _]. apply Forall_forall. intros c Hc. left. rewrite forallb_forall in Hd. auto. }
  repeat split.
  - unfold ipv4_display. repeat (apply Forall_app; split); try (apply Dd; assumption); repeat constructor; right; reflexivity.
  - unfold ipv4_display. destruct (D (a / 16777216) ltac:(assumption)) as [_ Hn].
    destruct (dec_u8 (a / 16777216)); [congruence|discriminate].
  - destruct (dec_parts_ok a H) as [H1 _]. rewrite ipv4_display_spell. unfold spell_addr. rewrite app_nil_r.
    unfold ends_in_a_number.
    assert (Hdf : Forall dotfree (map spell (dec_parts a))).
    { apply Forall_forall. intros x Hx. apply in_map_iff in Hx. destruct Hx as (p & <- & Hp).
      rewrite Forall_forall in H1. apply spell_dotfree. apply H1. exact Hp. }
    destruct (split_join (map spell (dec_parts a)) ltac:(discriminate) Hdf) as [S1 _]. rewrite S1.
    unfold dec_parts, octets. cbn [map rev app spell fst snd].
    destruct (D (a mod 256) ltac:(assumption)) as [Hd Hn].
    destruct (dec_u8 (a mod 256)) as [|c r] eqn:E; [congruence|]. rewrite Hd. reflexivity.
Qed.

(* IPv6 hosts need no hypothesis *)
Theorem ipv6_display_rt (idna : list N -> option (list N)) a : wf8 a ->
  host_parse_x idna (host_display (HIpv6 a)) = XOk (HIpv6 a)
  /\ host_parse_opaque_x (host_display (HIpv6 a)) = XOk (HIpv6 a).
Proof.
  intros Hw. cbn [host_display]. unfold host_parse_x, host_parse_opaque_x. cbn [app starts_with].
  replace (91 =? 91) with true by reflexivity. split; apply (bracketed_write a Hw).
Qed.

Section IdnaV4.
  Variable idna : list N -> option (list N).
  Hypothesis OK : IdnaOK idna.

  Theorem ipv4_display_rt a : a < 4294967296 -> host_parse_x idna (host_display (HIpv4 a)) = XOk (HIpv4 a).
  Proof.
    intros H. cbn [host_display]. destruct (ipv4_display_digits a H) as (Hd & Hn & He).
    assert (Ha : ascii (ipv4_display a)).
    { eapply Forall_impl; [|exact Hd]. intros c [Hc| ->]; unfold is_ascii; [unfold is_digit in Hc|]; lia. }
    assert (H37 : ~ In 37 (ipv4_display a)).
    { intros Hin. rewrite Forall_forall in Hd. destruct (Hd 37 Hin) as [Hc|Hc]; [vm_compute in Hc|]; discriminate. }
    assert (Hs : starts_with 91 (ipv4_display a) = false).
    { destruct (ipv4_display a) as [|c r]; [reflexivity|]. cbn [starts_with]. inversion Hd as [|? ? Hc _]; subst.
      destruct Hc as [Hc| ->]; [unfold is_digit in Hc; lia|reflexivity]. }
    unfold host_parse_x. rewrite Hs. rewrite utf8_encode_ascii by exact Ha. rewrite decode_no_pct by exact H37.
    rewrite (idna_v4 idna OK a H). rewrite He. rewrite parse_ipv4_display by exact H.
    destruct (ipv4_display a); [congruence|reflexivity].
  Qed.

  (* every host Host::parse returns is reproduced by parsing its Display text *)
  Theorem special_display_rt input h : host_parse_x idna input = XOk h ->
    host_parse_x idna (host_display h) = XOk h.
  Proof.
    intros H. pose proof (host_parse_x_cases idna input h H) as C. destruct h as [d|a|ps].
    - eapply domain_display_rt; eassumption.
    - destruct C as (dom & _ & E). exact (ipv4_display_rt a (parse_ipv4addr_bound dom a E)).
    - exact (proj1 (ipv6_display_rt idna ps (proj2 C))).
  Qed.
End IdnaV4.

Lemma denied_spec c : c < 128 ->
  memb c T_HOST_IDNA_DENIED = (Spec.forbidden_domain_code_point c || is_upper c).
Proof. intros H. apply eqb_prop. exact (all_below_spec _ _ denied_exact c H). Qed.

Lemma host_parse_ok_x idna input h : host_parse idna input = Ok h -> host_parse_x idna input = XOk h.
Proof. unfold host_parse. destruct (host_parse_x idna input); cbn [xr_result]; intros H; inversion H; reflexivity. Qed.

Lemma host_parse_opaque_ok_x input h : host_parse_opaque input = Ok h -> host_parse_opaque_x input = XOk h.
Proof. unfold host_parse_opaque. destruct (host_parse_opaque_x input); cbn [xr_result]; intros H; inversion H; reflexivity. Qed.

Lemma x_ok_host_parse idna input h : host_parse_x idna input = XOk h -> host_parse idna input = Ok h.
Proof. unfold host_parse. intros ->. reflexivity. Qed.

Lemma x_ok_host_parse_opaque input h : host_parse_opaque_x input = XOk h -> host_parse_opaque input = Ok h.
Proof. unfold host_parse_opaque. intros ->. reflexivity. Qed.
