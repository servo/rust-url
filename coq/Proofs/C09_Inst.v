(* Proofs/C09_Inst.v - the hypothesis records that the URL-level theorems put on ABSTRACT host functions
   (C02: HostRT / host_above / HostOK of C02_Reach.v, C05: HostOK of C05_Parser.v and IpOK, C06: host_disp_ok),
   discharged for the CONCRETE host model of Model/Host.v - host_parse idna, host_parse_opaque, host_display -
   relative to IdnaOK idna (Proofs/C09_Host.v) only.  IdnaOK is not met by the IDNA model
   (model_long_not_IdnaOK, Proofs/C09_LongWit.v); IdnaOK2 is (Proofs/C09_Uts46.v), and IdnaOK2 idna -> IdnaOK (cap idna)
   (Proofs/C09_Long.v), which is how these lemmas reach the model with its own oracle (Proofs/C09_LongRun.v, C09_Inst2.v).
   The clauses that are FALSE of the host model are refuted by witnesses at the end of the file. *)
From RU Require Import Base.Prelude Base.Utf8 Model.AsciiSet Gen.Tables Model.PercentEncoding Model.HostT Model.Host
  Model.UrlRecord Model.Parser Proofs.C14_Enc Proofs.C14_Views Proofs.C09_V6 Proofs.C09_Wf Proofs.C09_Host
  Proofs.C02_Opaque Proofs.C02_Reach Proofs.C02_AuthParts Proofs.C05_Enc Proofs.C05_Setters Proofs.C06_Host
  Proofs.C16_RT6 Proofs.C16_RT6Model.

(* C14 relates pe_display to the per-byte map for byte lists.  Host::parse_opaque is a hypothesis-free
   function of the model, and the hypothesis records quantify over every list of numbers, so the same is
   needed without `bytes`: a number >= 256 is "encoded" by an out-of-range slice of the table (nothing). *)
Lemma pe_next_any S bs c rest : pe_next S bs = Some (c, rest) ->
  encode_t S bs = c ++ encode_t S rest /\ (length rest < length bs)%nat.
Proof.
  destruct bs as [|b r]; cbn [pe_next]; [discriminate|].
  destruct (should_encode S b) eqn:E.
  - intros H. inversion H; subst. split; [|cbn [length]; lia].
    unfold encode_t. cbn [flat_map]. unfold enc1_t at 1. rewrite E. reflexivity.
  - destruct (span_keep S r) as [u rest'] eqn:Es. intros H. inversion H; subst.
    destruct (span_keep_spec _ _ _ _ Es) as (H1 & H2 & _ & H4 & _). split; [|cbn [length]; lia].
    unfold encode_t. cbn [flat_map]. unfold enc1_t at 1. rewrite E. cbn [app]. f_equal.
    fold (encode_t S r). rewrite H1. unfold encode_t. rewrite flat_map_app.
    fold (encode_t S u). rewrite H2. reflexivity.
Qed.

Lemma chunks_f_any n : forall S bs, (length bs <= n)%nat -> concat (pe_chunks_f n S bs) = encode_t S bs.
Proof.
  induction n as [|n IH]; intros S bs Hlen.
  - destruct bs; [reflexivity | cbn in Hlen; lia].
  - cbn [pe_chunks_f]. destruct (pe_next S bs) as [[c rest]|] eqn:En.
    + destruct (pe_next_any _ _ _ _ En) as (H1 & H3). cbn [concat]. rewrite IH by lia. symmetry. exact H1.
    + apply pe_next_none in En. subst. reflexivity.
Qed.

Theorem pe_display_any S bs : pe_display S bs = encode_t S bs.
Proof. unfold pe_display, pe_chunks. apply chunks_f_any. lia. Qed.

Lemma enc_table_good : forallb good_opaque_char T_ENC_TABLE = true.
Proof. vm_compute. reflexivity. Qed.

Lemma in_firstn {A} (x : A) n : forall l, In x (firstn n l) -> In x l.
Proof.
  induction n as [|n IH]; intros l H; [destruct H|]. destruct l as [|y r]; [destruct H|].
  cbn [firstn In] in *. destruct H as [H|H]; [left; exact H | right; apply IH; exact H].
Qed.
Lemma in_skipn {A} (x : A) n : forall l, In x (skipn n l) -> In x l.
Proof.
  induction n as [|n IH]; intros l H; [exact H|]. destruct l as [|y r]; [destruct H|].
  cbn [skipn] in H. right. apply IH. exact H.
Qed.

Lemma enc_byte_good b x : In x (enc_byte b) -> good_opaque_char x = true.
Proof.
  unfold enc_byte. intros H. apply in_firstn, in_skipn in H.
  pose proof enc_table_good as G. rewrite forallb_forall in G. apply G. exact H.
Qed.

Lemma encode_t_good bs : (forall b, In b bs -> b < 128 -> is_invalid_host_char b = false) ->
  forallb good_opaque_char (encode_t T_CONTROLS bs) = true.
Proof.
  induction bs as [|b r IH]; intros Hin; [reflexivity|].
  unfold encode_t. cbn [flat_map]. fold (encode_t T_CONTROLS r). rewrite forallb_app.
  rewrite IH by (intros; apply Hin; [right|]; assumption). rewrite andb_true_r.
  unfold enc1_t. destruct (should_encode T_CONTROLS b) eqn:E.
  - apply forallb_forall. intros x Hx. exact (enc_byte_good b x Hx).
  - cbn [forallb]. rewrite andb_true_r. unfold good_opaque_char. rewrite E.
    assert (b < 128). { unfold should_encode in E. destruct (128 <=? b) eqn:E2; [discriminate|lia]. }
    rewrite Hin; [|left; reflexivity|assumption]. replace (b <? 128) with true by lia. reflexivity.
Qed.

(* the two ways Host::parse_opaque succeeds - for EVERY input list: a domain of good characters, or an IPv6 address *)
Lemma opaque_ok_cases input h : host_parse_opaque_x input = XOk h ->
  (exists d, h = HDomain d /\ forallb good_opaque_char d = true) \/ (exists a, h = HIpv6 a /\ wf8 a).
Proof.
  unfold host_parse_opaque_x. destruct (Host.starts_with 91 input).
  { intros H. right. exact (bracketed_ok _ _ H). }
  destruct (existsb is_invalid_host_char input) eqn:Ei; [discriminate|]. intros H. inversion H; subst.
  left. eexists. split; [reflexivity|]. rewrite pe_display_any. apply encode_t_good.
  intros b Hb Hlt. pose proof (utf8_ascii_origin _ _ Hb Hlt) as Hin.
  destruct (is_invalid_host_char b) eqn:E; [|reflexivity].
  assert (existsb is_invalid_host_char input = true) by (apply existsb_exists; exists b; tauto). congruence.
Qed.

(* C09's opaque_display_rt without the hypothesis that the input is a list of scalar values *)
Theorem opaque_display_rt_any input h :
  host_parse_opaque_x input = XOk h -> host_parse_opaque_x (host_display h) = XOk h.
Proof.
  intros H. destruct (opaque_ok_cases input h H) as [(d & -> & Hd)|(a & -> & Hw)].
  - cbn [host_display]. apply good_opaque_fixed. exact Hd.
  - exact (proj2 (ipv6_display_rt (fun _ => None) a Hw)).
Qed.

(* printable ASCII without the delimiters of the authority, brackets and DEL *)
Definition hostc (c : N) : bool :=
  (32 <? c) && (c <? 127) && negb (memb c [58; 47; 92; 63; 35; 64; 91; 93]).

Definition term_ok (sp : bool) (rest : list N) : Prop :=
  match rest with [] => True | c :: _ => (c =? 58) || (c =? 47) || (c =? 63) || (c =? 35) || ((c =? 92) && sp) = true end.

Lemma host_scan_stop sp rest : forall acc, term_ok sp rest -> host_scan sp false acc rest = (rev acc, rest).
Proof.
  intros acc Hr. destruct rest as [|c r]; [reflexivity|]. cbn [host_scan]. cbn [term_ok] in Hr.
  assert (is_tnl c = false) as Ht by (unfold is_tnl; destruct sp; lia). rewrite Ht. cbn [negb].
  assert (((c =? 58) && true) || ((c =? 92) && sp) || (c =? 47) || (c =? 63) || (c =? 35) = true) as E by (destruct sp; lia).
  rewrite E. reflexivity.
Qed.

Lemma host_scan_hostc sp s : forall acc rest, forallb hostc s = true -> term_ok sp rest ->
  host_scan sp false acc (s ++ rest) = (rev acc ++ s, rest).
Proof.
  induction s as [|c s IH]; intros acc rest Hs Hr.
  - cbn [app]. rewrite app_nil_r. apply host_scan_stop. exact Hr.
  - cbn [forallb] in Hs. apply andb_true_iff in Hs. destruct Hs as [Hc Hs].
    unfold hostc in Hc. cbn [memb] in Hc. cbn [app host_scan].
    assert (is_tnl c = false) as Ht by (unfold is_tnl; lia). rewrite Ht. cbn [negb].
    assert (((c =? 58) && true) || ((c =? 92) && sp) || (c =? 47) || (c =? 63) || (c =? 35) = false) as E by (destruct sp; lia).
    rewrite E. replace (c =? 91) with false by lia. replace (c =? 93) with false by lia.
    rewrite IH by assumption. cbn [rev]. rewrite <- app_assoc. reflexivity.
Qed.

Lemma hostc_plain sp c : hostc c = true -> C02_AuthParts.plainc sp c = true.
Proof. unfold hostc, C02_AuthParts.plainc, auth_delim, is_tnl. cbn [memb]. destruct sp; lia. Qed.

Lemma hostc_ok_byte c : hostc c = true -> ok_byte c.
Proof. unfold hostc, ok_byte. cbn [memb]. lia. Qed.

Lemma hostc_above c : hostc c = true -> above_space c = true.
Proof. unfold hostc, above_space, is_c0_or_space. cbn [memb]. lia. Qed.

Theorem hostc_text_ok s : s <> [] -> forallb hostc s = true ->
  host_text_ok s /\ forallb above_space s = true /\ Forall ok_byte s.
Proof.
  intros Hne Hs. split; [split; [|split; [exact Hne|split]]|split].
  - apply Forall_forall. intros c Hc. rewrite forallb_forall in Hs. specialize (Hs c Hc).
    unfold hostc, is_ascii in *. lia.
  - intros sp rest Hr. exact (host_scan_hostc sp s [] rest Hs Hr).
  - rewrite <- (app_nil_r s). rewrite scan_plain; [reflexivity|].
    apply (forallb_impl hostc); [apply hostc_plain | exact Hs].
  - apply (forallb_impl hostc); [apply hostc_above | exact Hs].
  - apply Forall_forall. intros c Hc. rewrite forallb_forall in Hs. apply hostc_ok_byte, Hs, Hc.
Qed.

(* bracketed texts: inside the brackets the scan does not stop at ':' *)
Lemma host_scan_inside_sp sp body : forall acc rest, forallb v6c body = true ->
  host_scan sp true acc (body ++ 93 :: rest) = host_scan sp false (93 :: rev body ++ acc) rest.
Proof.
  induction body as [|c body IH]; intros acc rest Hb.
  - cbn [app rev host_scan]. reflexivity.
  - cbn [forallb] in Hb. apply andb_true_iff in Hb. destruct Hb as [Hc Hb].
    apply v6c_facts in Hc. destruct Hc as (Ht0 & _ & _ & H47 & H92 & H63 & H35 & _ & H91 & H93).
    cbn [app host_scan]. rewrite Ht0.
    replace (c =? 92) with false by lia. replace (c =? 47) with false by lia.
    replace (c =? 63) with false by lia. replace (c =? 35) with false by lia.
    replace (c =? 91) with false by lia. replace (c =? 93) with false by lia.
    cbn [negb andb orb]. rewrite andb_false_r. cbn [orb].
    rewrite (IH (c :: acc) rest Hb). cbn [rev]. now rewrite <- app_assoc.
Qed.

Lemma v6c_plain sp c : v6c c = true -> C02_AuthParts.plainc sp c = true.
Proof. intros H. apply v6c_facts in H. unfold C02_AuthParts.plainc, auth_delim. destruct H as (-> & ?). destruct sp; lia. Qed.

Theorem bracket_text_ok body : forallb v6c body = true -> Forall (fun c => c <= 126) body ->
  host_text_ok (91 :: body ++ [93]) /\ forallb above_space (91 :: body ++ [93]) = true
  /\ Forall ok_byte (91 :: body ++ [93]).
Proof.
  intros Hb Hle.
  assert (Hall : forall c, In c (91 :: body ++ [93]) -> (c = 91 \/ c = 93) \/ (v6c c = true /\ c <= 126)).
  { intros c [<-|Hc]; [left; left; reflexivity|]. apply in_app_or in Hc. destruct Hc as [Hc|[<-|[]]].
    - right. rewrite forallb_forall in Hb. rewrite Forall_forall in Hle. split; [apply Hb | apply Hle]; exact Hc.
    - left. right. reflexivity. }
  split; [split; [|split; [discriminate|split]]|split].
  - apply Forall_forall. intros c Hc. unfold is_ascii. destruct (Hall c Hc) as [[->| ->]|[Hv _]]; try lia.
    apply v6c_facts in Hv. lia.
  - intros sp rest Hr.
    assert (E : (91 :: body ++ [93]) ++ rest = 91 :: body ++ 93 :: rest) by (cbn [app]; rewrite <- app_assoc; reflexivity).
    rewrite E.
    change (host_scan sp false [] (91 :: body ++ 93 :: rest)) with (host_scan sp true [91] (body ++ 93 :: rest)).
    rewrite (host_scan_inside_sp sp body [91] rest Hb). rewrite (host_scan_stop sp rest _ Hr).
    cbn [rev]. rewrite rev_app_distr, rev_involutive. cbn [rev app]. reflexivity.
  - rewrite <- (app_nil_r (91 :: body ++ [93])). rewrite scan_plain; [reflexivity|].
    apply forallb_forall. intros c Hc. destruct (Hall c Hc) as [[->| ->]|[Hv _]]; [reflexivity|reflexivity|].
    apply v6c_plain. exact Hv.
  - apply forallb_forall. intros c Hc. unfold above_space, is_c0_or_space.
    destruct (Hall c Hc) as [[->| ->]|[Hv _]]; [reflexivity|reflexivity|]. apply v6c_facts in Hv. lia.
  - apply Forall_forall. intros c Hc. unfold ok_byte.
    destruct (Hall c Hc) as [[->| ->]|[Hv Hl]]; [lia|lia|]. apply v6c_facts in Hv. lia.
Qed.

(* ---- the three kinds of text Display writes ---- *)
Lemma good_opaque_hostc_sweep : all_below 128 (fun c => negb (good_opaque_char c) || hostc c) = true.
Proof. vm_compute. reflexivity. Qed.

Lemma good_opaque_hostc c : good_opaque_char c = true -> hostc c = true.
Proof.
  intros H. assert (c < 128) as L by (unfold good_opaque_char in H; lia).
  pose proof (all_below_spec 128 _ good_opaque_hostc_sweep c L) as S. cbv beta in S. rewrite H in S. exact S.
Qed.

Lemma dom_char_hostc_sweep : all_below 128 (fun c => memb c T_HOST_IDNA_DENIED || hostc c) = true.
Proof. vm_compute. reflexivity. Qed.

Lemma dom_char_hostc c : dom_char_ok c -> hostc c = true.
Proof.
  intros [L H]. pose proof (all_below_spec 128 _ dom_char_hostc_sweep c L) as S. cbv beta in S. rewrite H in S. exact S.
Qed.

Lemma digit_dot_hostc c : is_digit c = true \/ c = 46 -> hostc c = true.
Proof. unfold is_digit, hostc. cbn [memb]. lia. Qed.

Lemma ipv4_display_hostc a : a < 4294967296 -> ipv4_display a <> [] /\ forallb hostc (ipv4_display a) = true.
Proof.
  intros Ha. destruct (ipv4_display_digits a Ha) as (Hd & Hn & _). split; [exact Hn|].
  apply forallb_forall. intros c Hc. rewrite Forall_forall in Hd. apply digit_dot_hostc, Hd, Hc.
Qed.

(* DEL is never written: pieces are lower-case hex, separators ':' *)
Lemma write_ipv6_le a : Forall (fun x => x < 65536) a -> Forall (fun c => c <= 126) (write_ipv6 a).
Proof. apply write_ipv6_Forall; unfold is_lower_hex, is_digit; lia. Qed.

(* every well-formed IP value is displayed as a host text *)
Theorem ip_text_ok h : op_args_ok (OSetIpHost h) ->
  host_text_ok (host_display h) /\ forallb above_space (host_display h) = true /\ Forall ok_byte (host_display h).
Proof.
  destruct h as [d|a|ps]; cbn [op_args_ok]; [intros []| |].
  - intros Ha. cbn [host_display]. destruct (ipv4_display_hostc a Ha) as [Hn Hc]. exact (hostc_text_ok _ Hn Hc).
  - intros [Hl Hw]. cbn [host_display app].
    exact (bracket_text_ok (write_ipv6 ps) (proj1 (write_ipv6_chars ps Hw)) (write_ipv6_le ps Hw)).
Qed.

Inductive host_shape : host -> Prop :=
| HS_dom d : d <> [] -> forallb hostc d = true -> host_shape (HDomain d)
| HS_empty : host_shape (HDomain [])
| HS_v4 a : a < 4294967296 -> host_shape (HIpv4 a)
| HS_v6 ps : wf8 ps -> host_shape (HIpv6 ps).

(* of the oracle hypothesis only the first clause (answers are ASCII outside the deny list) is used *)
Lemma host_parse_x_shape_out idna input h : (forall bs d, idna bs = Some d -> Forall dom_char_ok d) ->
  host_parse_x idna input = XOk h -> host_shape h /\ h <> HDomain [].
Proof.
  intros Out H. pose proof (host_parse_x_cases idna input h H) as C. destruct h as [d|a|ps].
  - destruct C as (H1 & H2 & _). split; [|intros E; inversion E; contradiction]. apply HS_dom; [exact H2|].
    apply forallb_forall. intros c Hc. pose proof (Out _ d H1) as Hout. rewrite Forall_forall in Hout.
    apply dom_char_hostc, Hout, Hc.
  - destruct C as (dom & _ & E). split; [|discriminate]. apply HS_v4. exact (parse_ipv4addr_bound dom a E).
  - split; [|discriminate]. apply HS_v6. exact (proj2 C).
Qed.

Lemma host_parse_x_shape idna input h : IdnaOK idna -> host_parse_x idna input = XOk h -> host_shape h /\ h <> HDomain [].
Proof. intros OK. exact (host_parse_x_shape_out idna input h (idna_out idna OK)). Qed.

Lemma host_parse_opaque_x_shape input h : host_parse_opaque_x input = XOk h -> host_shape h.
Proof.
  intros H. destruct (opaque_ok_cases input h H) as [(d & -> & Hd)|(a & -> & Hw)]; [|apply HS_v6; exact Hw].
  destruct d as [|c d]; [apply HS_empty|]. apply HS_dom; [discriminate|].
  apply (forallb_impl good_opaque_char); [apply good_opaque_hostc | exact Hd].
Qed.

(* the display of a host of one of the four shapes *)
Theorem shape_text h : host_shape h -> h <> HDomain [] ->
  host_text_ok (host_display h) /\ forallb above_space (host_display h) = true /\ Forall ok_byte (host_display h).
Proof.
  intros [d Hn Hc| |a Ha|ps Hw] Hne.
  - cbn [host_display]. exact (hostc_text_ok d Hn Hc).
  - contradiction.
  - apply ip_text_ok. exact Ha.
  - apply ip_text_ok. destruct Hw as [Hl Hb]. exact (conj Hl Hb).
Qed.

Lemma shape_above h : host_shape h -> forallb above_space (host_display h) = true.
Proof.
  intros Hs. destruct h as [[|c d]|a|ps]; [reflexivity| | |];
    apply (fun N => proj1 (proj2 (shape_text _ Hs N))); discriminate.
Qed.

Lemma shape_ok_bytes h : host_shape h -> Forall ok_byte (host_display h).
Proof.
  intros Hs. destruct h as [[|c d]|a|ps]; [constructor| | |];
    apply (fun N => proj2 (proj2 (shape_text _ Hs N))); discriminate.
Qed.

(* host_disp_ok of C06 / C05 (the text matches the kind; it does not start with ':' or '@'), for every
   host a parser returns and every IP value of Url::set_ip_host *)
Lemma shape_disp_ok h : host_shape h -> host_disp_ok host_display h.
Proof.
  intros Hs. unfold host_disp_ok. destruct h as [[|c d]|a|ps]; cbn [hi_of_host host_display].
  - reflexivity.
  - inversion Hs as [d0 Hn Hc| | |]; subst. cbn [forallb] in Hc. apply andb_true_iff in Hc. destruct Hc as [Hc _].
    exists c, d. split; [reflexivity|]. unfold hostc in Hc. cbn [memb] in Hc. lia.
  - inversion Hs as [|  |a0 Ha|]; subst. destruct (ipv4_display_hostc a Ha) as [Hn Hc].
    destruct (ipv4_display a) as [|c r]; [contradiction|]. cbn [forallb] in Hc. apply andb_true_iff in Hc. destruct Hc as [Hc _].
    exists c, r. split; [reflexivity|]. unfold hostc in Hc. cbn [memb] in Hc. lia.
  - exists 91, (write_ipv6 ps ++ [93]). split; [reflexivity|]. lia.
Qed.

Theorem ip_disp_ok h : op_args_ok (OSetIpHost h) -> host_disp_ok host_display h.
Proof.
  intros H. apply shape_disp_ok.
  destruct h as [d|a|ps]; cbn [op_args_ok] in H; [destruct H | apply HS_v4; exact H | apply HS_v6; exact H].
Qed.

(* ---- the records that speak of the shape of the hosts only: relative to the first clause of the oracle hypothesis ---- *)
Section OutRecords.
Variable idna : list N -> option (list N).
Hypothesis Out : forall bs d, idna bs = Some d -> Forall dom_char_ok d.

Lemma host_parse_shape s h : host_parse idna s = Ok h -> host_shape h.
Proof. intros H. exact (proj1 (host_parse_x_shape_out idna s h Out (host_parse_ok_x _ _ _ H))). Qed.

Lemma host_parse_opaque_shape s h : host_parse_opaque s = Ok h -> host_shape h.
Proof. intros H. exact (host_parse_opaque_x_shape s h (host_parse_opaque_ok_x _ _ H)). Qed.

(* host_above: every displayed host is above U+0020 *)
Theorem model_host_above_out : host_above (host_parse idna) host_parse_opaque host_display.
Proof. split; intros s h H; apply shape_above; [exact (host_parse_shape s h H) | exact (host_parse_opaque_shape s h H)]. Qed.

(* HostOK of C05 (C05_Parser.v): whatever the parser can write as a host prints inside 0x21..0x7E *)
Theorem model_HostOK_C05_out : C05_Parser.HostOK (host_parse idna) host_parse_opaque host_display.
Proof.
  intros h [->|[[s Hs]|[s Hs]]]; [constructor| |]; apply shape_ok_bytes;
    [exact (host_parse_shape s h Hs) | exact (host_parse_opaque_shape s h Hs)].
Qed.

Theorem model_host_disp_ok_out s h : host_parse idna s = Ok h \/ host_parse_opaque s = Ok h ->
  host_disp_ok host_display h.
Proof. intros [H|H]; apply shape_disp_ok; [exact (host_parse_shape s h H) | exact (host_parse_opaque_shape s h H)]. Qed.

End OutRecords.

(* ---- relative to IdnaOK ---- *)
Section Records.
Variable idna : list N -> option (list N).
Hypothesis OK : IdnaOK idna.

Lemma hp_clause s h : host_parse idna s = Ok h -> h <> HDomain [] ->
  host_text_ok (host_display h) /\ host_parse idna (host_display h) = Ok h.
Proof.
  intros H _. pose proof (host_parse_ok_x _ _ _ H) as Hx.
  destruct (host_parse_x_shape idna s h OK Hx) as [Hs Hne]. split; [exact (proj1 (shape_text h Hs Hne))|].
  apply x_ok_host_parse. exact (special_display_rt idna OK s h Hx).
Qed.

Lemma hpo_clause s h : host_parse_opaque s = Ok h -> h <> HDomain [] ->
  host_text_ok (host_display h) /\ host_parse_opaque (host_display h) = Ok h.
Proof.
  intros H Hne. pose proof (host_parse_opaque_ok_x _ _ H) as Hx.
  split; [exact (proj1 (shape_text h (host_parse_opaque_x_shape s h Hx) Hne))|].
  apply x_ok_host_parse_opaque. exact (opaque_display_rt_any s h Hx).
Qed.

Lemma hpo_nil : host_parse_opaque [] = Ok (HDomain []).
Proof. reflexivity. Qed.

(* HostRT (C02_AuthParts.v): the four parsing clauses *)
Theorem model_HostRT : HostRT (host_parse idna) host_parse_opaque host_display.
Proof. split; [exact hp_clause | split; [exact hpo_clause | split; [reflexivity | exact hpo_nil]]]. Qed.

Theorem model_host_above : host_above (host_parse idna) host_parse_opaque host_display.
Proof. exact (model_host_above_out idna (idna_out idna OK)). Qed.

Theorem model_HostOK_C05 : C05_Parser.HostOK (host_parse idna) host_parse_opaque host_display.
Proof. exact (model_HostOK_C05_out idna (idna_out idna OK)). Qed.

(* the clauses of HostOK of C02_Reach.v that hold: all but `hp [] = Ok (HDomain [])` and the
   Host::parse_opaque half of the set_ip_host clause for IPv4 values (host_parse_nil_refuted, opaque_ipv4_refuted below) *)
Theorem model_HostOK_C02_true :
  (forall s h, host_parse idna s = Ok h -> h <> HDomain [] ->
     host_text_ok (host_display h) /\ host_parse idna (host_display h) = Ok h)
  /\ (forall s h, host_parse_opaque s = Ok h -> h <> HDomain [] ->
     host_text_ok (host_display h) /\ host_parse_opaque (host_display h) = Ok h)
  /\ (forall h, op_args_ok (OSetIpHost h) ->
     host_text_ok (host_display h) /\ host_parse idna (host_display h) = Ok h
     /\ (forall ps, h = HIpv6 ps -> host_parse_opaque (host_display h) = Ok h))
  /\ host_display (HDomain []) = [] /\ host_parse_opaque [] = Ok (HDomain []).
Proof.
  split; [exact hp_clause|]. split; [exact hpo_clause|]. split; [|split; [reflexivity | exact hpo_nil]].
  intros h Hh. split; [exact (proj1 (ip_text_ok h Hh))|]. destruct h as [d|a|ps]; cbn [op_args_ok] in Hh; [destruct Hh| |].
  - split; [|intros ps E; discriminate E]. apply x_ok_host_parse. exact (ipv4_display_rt idna OK a Hh).
  - destruct (ipv6_display_rt idna ps Hh) as [H1 H2]. split; [exact (x_ok_host_parse _ _ _ H1)|].
    intros ps' _. exact (x_ok_host_parse_opaque _ _ H2).
Qed.
End Records.

(* IpOK of C05 holds for the values Url::set_ip_host can be given (an Ipv4Addr is a u32, an Ipv6Addr eight u16) *)
Theorem model_IpOK_wf h : op_args_ok (OSetIpHost h) -> Forall ok_byte (host_display h).
Proof. intros H. exact (proj2 (proj2 (ip_text_ok h H))). Qed.

(* (a) HostOK of C02_Reach.v demands hp [] = Ok (HDomain []).  Host::parse never returns an empty domain:
   on the empty text it fails whatever the IDNA function answers (the parser model never calls it with the
   empty text outside the file-host state, where the model of parser.rs short-cuts the empty host) *)
Theorem host_parse_nil_refuted idna : host_parse idna [] <> Ok (HDomain []).
Proof.
  unfold host_parse, host_parse_x. cbn [Host.starts_with utf8_encode flat_map]. rewrite decode_nil.
  destruct (idna []) as [[|c d]|]; cbn [xr_result]; try discriminate.
  destruct (Host.ends_in_a_number (c :: d)); [destruct (parse_ipv4addr (c :: d))|]; cbn [xr_map xr_result]; discriminate.
Qed.

(* (b) HostOK of C02_Reach.v demands hpo (hd h) = Ok h for every IP value h.  For an IPv4 value this is
   false: Host::parse_opaque reads dotted decimal text as an opaque host (a Domain).  In the crate:
   Url::parse("a://x/") then set_ip_host(127.0.0.1) gives a://127.0.0.1/ with host() = Host::Ipv4, while
   Url::parse("a://127.0.0.1/").host() = Host::Domain("127.0.0.1"): the serialization re-parses to itself
   but not to the same HostInternal *)
Theorem opaque_ipv4_refuted : forall a, a < 4294967296 ->
  host_parse_opaque (host_display (HIpv4 a)) = Ok (HDomain (ipv4_display a))
  /\ host_parse_opaque (host_display (HIpv4 a)) <> Ok (HIpv4 a).
Proof.
  intros a Ha. destruct (ipv4_display_hostc a Ha) as [Hn Hc].
  assert (E : host_parse_opaque (host_display (HIpv4 a)) = Ok (HDomain (ipv4_display a))).
  { cbn [host_display]. apply x_ok_host_parse_opaque, good_opaque_fixed.
    destruct (ipv4_display_digits a Ha) as (Hd & _). apply forallb_forall. intros c Hin.
    rewrite Forall_forall in Hd. specialize (Hd c Hin).
    assert (c < 128) as L by (destruct Hd as [Hd| ->]; [unfold is_digit in Hd|]; lia).
    assert (all_below 128 (fun c => negb (is_digit c || (c =? 46)) || good_opaque_char c) = true) as S by (vm_compute; reflexivity).
    pose proof (all_below_spec 128 _ S c L) as S1. cbv beta in S1.
    destruct Hd as [Hd| ->]; [rewrite Hd in S1; exact S1 | exact S1]. }
  split; [exact E|]. rewrite E. discriminate.
Qed.

Theorem model_HostOK_C02_refuted idna :
  ~ C02_Reach.HostOK (host_parse idna) host_parse_opaque host_display.
Proof. intros (_ & _ & _ & _ & H & _). exact (host_parse_nil_refuted idna H). Qed.

(* (c) IpOK of C05 quantifies over every value of the model type `host`, also those that are no Rust values
   (an "IPv4 address" above 2^32): Display for such a value leaves 0x21..0x7E.  A gap of the hypothesis (the
   model type is wider than Ipv4Addr), not of the code; model_IpOK_wf is the clause for Rust values. *)
Theorem model_IpOK_refuted : ~ IpOK host_display.
Proof.
  intros H. specialize (H (HIpv4 4294967296000) I). cbn [host_display] in H.
  inversion H as [|x l Hx _]; subst. unfold ok_byte in Hx. vm_compute in Hx. destruct Hx as [_ Hx]. apply Hx. reflexivity.
Qed.

(* (d) the gate of C05_components_step for Url::set_host(Some _) asks host_disp_ok hd h for EVERY value h of the
   model type.  Display is the identity on domains, so a "domain" that no parser returns (":") fails it;
   model_host_disp_ok_out / ip_disp_ok are the clauses for the hosts the parsers return and for address values. *)
Theorem host_disp_ok_all_refuted : ~ (forall h, host_disp_ok host_display h).
Proof.
  intros H. specialize (H (HDomain [58])). unfold host_disp_ok in H. cbn in H.
  destruct H as (c & r & E & Hc & _). inversion E; subst. apply Hc. reflexivity.
Qed.
