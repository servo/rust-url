(* Proofs/C13_Mono.v - the <n, i> monotonicity of the decoder: every later insertion is lexicographically
   later, so of the final string s the part below the current n is already there, and so is the prefix
   of length i of the part up to n.  Stated for every state of the checked decoder b_dec_loop
   (inside a delta as well). *)
From RU Require Import Base.Prelude Spec.Rfc3492 Proofs.C13_Enc Proofs.C13_Dec
  Proofs.C13_Rt Proofs.C13_DecB.

Definition all_le (n : N) (l : list N) : Prop := Forall (fun c => c <= n) l.

Lemma insert_at_split : forall out i c, i <= len out ->
  exists A B, out = A ++ B /\ len A = i /\ s_insert_at i c out = A ++ c :: B.
Proof.
  induction out as [|x r IH]; intros i c Hi.
  - rewrite len_nil in Hi. assert (i = 0) by lia. subst i. exists [], []. rewrite s_insert_at_0.
    split; [reflexivity|]. split; reflexivity.
  - destruct (N.eq_dec i 0) as [->|Hne].
    + exists [], (x :: r). rewrite s_insert_at_0. split; [reflexivity|]. split; reflexivity.
    + rewrite s_insert_at_pos by exact Hne. rewrite len_cons in Hi.
      destruct (IH (i - 1) c ltac:(lia)) as [A [B [E1 [E2 E3]]]].
      exists (x :: A), B. rewrite E3, len_cons, E2. subst r.
      split; [reflexivity|]. split; [lia|reflexivity].
Qed.

Lemma filter_all_le n l : all_le n l -> filter (le_m n) l = l.
Proof.
  induction 1 as [|c l Hc _ IH]; [reflexivity|]. cbn [filter]. unfold le_m at 1.
  replace (c <=? n) with true by lia. rewrite IH. reflexivity.
Qed.

Lemma all_le_mono n n' l : n <= n' -> all_le n l -> all_le n' l.
Proof. intros H. unfold all_le. apply Forall_impl. intros c Hc. lia. Qed.

Lemma all_le_insert n n' i out : n <= n' -> i <= len out -> all_le n out -> all_le n' (s_insert_at i n' out).
Proof.
  intros Hn Hi Ho. destruct (insert_at_split out i n' Hi) as [A [B [E1 [_ E3]]]]. rewrite E3.
  apply (all_le_mono n n' out Hn) in Ho. rewrite E1 in Ho. unfold all_le in *.
  apply Forall_app in Ho. destruct Ho as [HA HB].
  apply Forall_app. split; [exact HA|]. constructor; [lia|exact HB].
Qed.

Lemma filter_insert_drop c n1 i out : c < n1 -> i <= len out ->
  filter (le_m c) (s_insert_at i n1 out) = filter (le_m c) out.
Proof.
  intros Hc Hi. destruct (insert_at_split out i n1 Hi) as [A [B [E1 [_ E3]]]]. rewrite E3, E1.
  rewrite !filter_app. cbn [filter]. unfold le_m at 2. replace (n1 <=? c) with false by lia. reflexivity.
Qed.

(* each code unit read inserts at most one scalar, and the last one of a non-empty input inserts one *)
Lemma b_len_bounds dig R : forall mid oldi w k i n bias out s,
  b_dec_loop dig R mid oldi w k i n bias out = Some s ->
  len out <= len s <= len out + len R /\ (R <> [] -> len out < len s).
Proof.
  induction R as [|c R IH]; intros mid oldi w k i n bias out s H.
  - cbn [b_dec_loop] in H. destruct mid; [discriminate|]. inversion H. rewrite len_nil. split; [lia|congruence].
  - apply b_dec_loop_inv in H. destruct H as (digit & _ & _ & H). rewrite len_cons.
    destruct (digit <? s_threshold k bias).
    + apply b_dec_break_inv in H. destruct H as (_ & _ & H). apply IH in H. rewrite len_insert_at in H.
      split; [lia|intros _; lia].
    + destruct (IH _ _ _ _ _ _ _ _ _ H) as [B G]. split; [lia|]. intros _. apply G. intros ->. discriminate.
Qed.

Lemma b_mono dig R : forall mid oldi w k i n bias out s,
  all_le n out ->
  b_dec_loop dig R mid oldi w k i n bias out = Some s ->
  (forall c, c < n -> filter (le_m c) s = filter (le_m c) out)
  /\ (forall A B, out = A ++ B -> len A <= i -> exists B', filter (le_m n) s = A ++ B').
Proof.
  induction R as [|c0 R IH]; intros mid oldi w k i n bias out s Hle H.
  - cbn [b_dec_loop] in H. destruct mid; [discriminate|]. inversion H. subst s. split.
    + intros c _. reflexivity.
    + intros A B E _. exists B. rewrite filter_all_le by exact Hle. exact E.
  - apply b_dec_loop_inv in H. destruct H as (digit & _ & _ & H). destruct (digit <? s_threshold k bias).
    + apply b_dec_break_inv in H. destruct H as (_ & _ & H).
      remember (i + digit * w) as i'.
      assert (Hpos : i' mod (len out + 1) <= len out).
      { pose proof (N.mod_lt i' (len out + 1) ltac:(lia)). lia. }
      remember (i' mod (len out + 1)) as pos1. remember (i' / (len out + 1)) as dq. remember (n + dq) as n1.
      assert (Hn1 : n <= n1) by lia.
      destruct (IH _ _ _ _ _ _ _ _ _ (all_le_insert n n1 pos1 out Hn1 Hpos Hle) H) as [I1 I2].
      split.
      * intros c Hc. rewrite (I1 c ltac:(lia)). apply filter_insert_drop; [lia|exact Hpos].
      * intros A B E HA.
        destruct (N.eq_dec dq 0) as [Hz|Hnz].
        -- (* same code point: the insertion is at i' >= i *)
           rewrite Hz, N.add_0_r in Heqn1. subst n1.
           assert (Hp : pos1 = i').
           { subst pos1. apply N.mod_small. rewrite Heqdq in Hz. apply N.div_small_iff in Hz; lia. }
           destruct (insert_at_split out pos1 n Hpos) as [A1 [B1 [E1 [E2 E3]]]].
           assert (Hpre : exists l, A1 = A ++ l).
           { rewrite E in E1. destruct (app_eq_app _ _ _ _ E1) as [l [[Ha Hb]|[Ha Hb]]].
             - assert (l = []).
               { apply (f_equal len) in Ha. rewrite len_app in Ha. destruct l; [reflexivity|rewrite len_cons in Ha; lia]. }
               subst l. rewrite app_nil_r in Ha. exists []. rewrite app_nil_r. symmetry. exact Ha.
             - exists l. exact Ha. }
           destruct Hpre as [l Hl].
           apply (I2 A (l ++ n :: B1)).
           ++ rewrite E3, Hl, <- app_assoc. reflexivity.
           ++ lia.
        -- (* a larger code point: from here on nothing up to n changes *)
           assert (Hlt : n < n1) by lia.
           exists B. rewrite (I1 n Hlt). rewrite filter_insert_drop by (lia || exact Hpos).
           rewrite filter_all_le by exact Hle. exact E.
    + destruct (IH _ _ _ _ _ _ _ _ _ Hle H) as [I1 I2]. split; [exact I1|].
      intros A B E HA. apply (I2 A B E). lia.
Qed.
