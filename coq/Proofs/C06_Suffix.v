(* Proofs/C06_Suffix.v - two serializations that share everything from some offset on, at shifted
   offsets.  When the shared part begins at or before the end of the path, the query / fragment part of the
   invariant and the query, fragment read-backs carry over (used by the path setters); when it begins at
   or before the start of the path, so do the path and its part of the invariant (used by every setter
   that edits in front of the path). *)
From RU Require Import Base.Prelude Model.UrlRecord Model.Setters Model.WF Proofs.C03_WF Proofs.C06_List
  Proofs.C06_WFI Proofs.C06_Tail.

(* an offset o behind the replaced piece [.., b) moves with the new end b'; N subtraction truncates, so this is
   meant for b <= o only *)
Definition shift (b b' o : N) : N := o - b + b'.

Definition shifted_tail (b b' : N) (u u' : url) : Prop :=
  path_start u' = shift b b' (path_start u)
  /\ query_start u' = option_map (shift b b') (query_start u)
  /\ fragment_start u' = option_map (shift b b') (fragment_start u).

(* host text is non-empty whenever there is a host (true of every parsed URL; wf_b itself does not
   relate the host kind to the host text) and does not begin with ':' or '@': without userinfo
   username_end = host_start, and these are the bytes wf_b and password() inspect at username_end *)
Definition host_text_ok (u : url) : Prop :=
  has_host u = true ->
  host_start u < host_end u /\ byte_eqb (ser u) (host_start u) 58 = false /\ byte_eqb (ser u) (host_start u) 64 = false.

(* a query starts where the path ends; so does a fragment when there is no query *)
Lemma path_end_le_qf u : wf_b u = true ->
  match query_start u with Some q => path_end u <= q | None => True end
  /\ match fragment_start u with Some f => path_end u <= f | None => True end.
Proof.
  intros W. pose proof (qf_qf (wf_qf_facts u W)) as Q. unfold path_end.
  destruct (query_start u), (fragment_start u); split; try exact I; lia.
Qed.

(* everything from an offset b on is shared, at offsets shifted from b to b' *)
Section SharedSuffix.
Variables (u u' : url) (b b' : N).
Hypothesis Hsuf : agree_suf b b' (ser u) (ser u').

Lemma sfx_byte i c : b <= i -> byte_eqb (ser u') (shift b b' i) c = byte_eqb (ser u) i c.
Proof. intros Hi. apply (suf_byte_eqb b b'); [exact Hsuf | exact Hi | reflexivity]. Qed.

Lemma sfx_piece i j : b <= i -> i <= j ->
  nfirstn (shift b b' j - shift b b' i) (nskipn (shift b b' i) (ser u')) = nfirstn (j - i) (nskipn i (ser u)).
Proof.
  intros Hi Hij. replace (shift b b' j - shift b b' i) with (j - i) by (unfold shift; lia).
  apply (suf_piece b b'); [exact Hsuf | exact Hi | reflexivity].
Qed.

Lemma sfx_skip i : b <= i -> nskipn (shift b b' i) (ser u') = nskipn i (ser u).
Proof. intros Hi. apply (suf_skip b b'); [exact Hsuf | exact Hi | reflexivity]. Qed.

End SharedSuffix.

(* b lies at or before the end of the path *)
Section BehindPath.
Variables (u u' : url) (b b' : N).
Hypothesis W : wf_b u = true.
Hypothesis Hsuf : agree_suf b b' (ser u) (ser u').
Hypothesis Hb : b <= path_end u.
Hypothesis Hb' : b' <= nlen (ser u').
Hypothesis Hq : query_start u' = option_map (shift b b') (query_start u).
Hypothesis Hf : fragment_start u' = option_map (shift b b') (fragment_start u).

Lemma sfx_len : nlen (ser u') = shift b b' (nlen (ser u)).
Proof. destruct (wf_ps_le_path_end u W). apply (suf_len b b'); [exact Hsuf | lia | exact Hb']. Qed.

Lemma sfx_path_end : path_end u' = shift b b' (path_end u).
Proof.
  unfold path_end. rewrite Hq, Hf. destruct (query_start u); [reflexivity|]. destruct (fragment_start u); [reflexivity|].
  apply sfx_len.
Qed.

(* the invariant behind the path; what the new path is made of is the caller's business *)
Lemma qf_ok_behind : path_start u' <= path_end u' ->
  forallb no_qh (nfirstn (path_end u' - path_start u') (nskipn (path_start u') (ser u'))) = true -> qf_ok u'.
Proof.
  intros Hps HP. pose proof W as W0. apply wf_b_iff in W0. destruct W0 as (_ & _ & (Q1 & Q2 & Q3 & _ & Q5)).
  destruct (path_end_le_qf u W) as [G1 G2]. pose proof (wf_qf_facts u W) as QF. pose proof (qf_q QF) as F1. pose proof (qf_f QF) as F2.
  rewrite sfx_path_end in Hps. unfold qf_ok. rewrite Hq, Hf. split; [|split; [|split; [|split; [exact HP|]]]].
  - destruct (query_start u) as [q|]; [|exact I]. cbn [option_map]. rewrite (sfx_byte _ _ _ _ Hsuf) by lia. split; [unfold shift in *; lia | tauto].
  - destruct (fragment_start u) as [f|]; [|exact I]. cbn [option_map]. rewrite (sfx_byte _ _ _ _ Hsuf) by lia. split; [unfold shift in *; lia | tauto].
  - destruct (query_start u) as [q|]; [|exact I]. destruct (fragment_start u) as [f|]; [|exact I].
    cbn [option_map]. unfold shift. lia.
  - destruct (query_start u) as [q|]; [|exact I]. cbn [option_map].
    replace (shift b b' q + 1) with (shift b b' (q + 1)) by (unfold shift; lia).
    destruct (fragment_start u) as [f|]; cbn [option_map]; [rewrite (sfx_piece _ _ _ _ Hsuf) by lia | rewrite (sfx_skip _ _ _ _ Hsuf) by lia]; exact Q5.
Qed.

Hypothesis W' : wf_b u' = true.

Lemma sfx_query dbg : query dbg u' = query dbg u.
Proof.
  rewrite (query_eval dbg u' W'), (query_eval dbg u W). rewrite Hq.
  destruct (path_end_le_qf u W) as [G1 _]. pose proof (qf_q (wf_qf_facts u W)) as F1. pose proof (qf_qf (wf_qf_facts u W)) as F3.
  destruct (query_start u) as [q|] eqn:Eq; [|reflexivity]. cbn [option_map]. do 2 f_equal.
  unfold piece. cbn [pidx]. rewrite Hq, Hf, Eq. cbn [option_map].
  replace (shift b b' q + 1) with (shift b b' (q + 1)) by (unfold shift; lia).
  destruct (fragment_start u) as [f|]; cbn [option_map]; [|rewrite sfx_len]; apply (sfx_piece _ _ _ _ Hsuf); lia.
Qed.

Lemma sfx_fragment dbg : fragment dbg u' = fragment dbg u.
Proof.
  rewrite (fragment_eval dbg u' W'), (fragment_eval dbg u W). rewrite Hf.
  destruct (path_end_le_qf u W) as [_ G2]. pose proof (qf_f (wf_qf_facts u W)) as F2.
  destruct (fragment_start u) as [f|] eqn:Ef; [|reflexivity]. cbn [option_map]. do 2 f_equal.
  unfold piece. cbn [pidx]. rewrite Hf, Ef. cbn [option_map].
  replace (shift b b' f + 1) with (shift b b' (f + 1)) by (unfold shift; lia).
  rewrite sfx_len. apply (sfx_piece _ _ _ _ Hsuf); lia.
Qed.

End BehindPath.

(* the path itself is shared as well *)
Section Suffix.
Variables (u u' : url) (b b' : N).
Hypothesis W : wf_b u = true.
Hypothesis Hsuf : agree_suf b b' (ser u) (ser u').
Hypothesis Hb : b <= path_start u.
Hypothesis Hb' : b' <= nlen (ser u').
Hypothesis Hsh : shifted_tail b b' u u'.

Lemma sfx_path_piece : path_start u' = shift b b' (path_start u) /\ path_end u' = shift b b' (path_end u)
  /\ nfirstn (path_end u' - path_start u') (nskipn (path_start u') (ser u'))
     = nfirstn (path_end u - path_start u) (nskipn (path_start u) (ser u)).
Proof.
  destruct Hsh as (E1 & E2 & E3). destruct (wf_ps_le_path_end u W).
  rewrite (sfx_path_end u u' b b' W Hsuf) by (try assumption; lia). rewrite E1.
  split; [reflexivity|]. split; [reflexivity|]. apply (sfx_piece u u' b b' Hsuf); lia.
Qed.

Lemma sfx_qf_ok : qf_ok u'.
Proof.
  destruct Hsh as (_ & E2 & E3). destruct sfx_path_piece as (P1 & P2 & P3). destruct (wf_ps_le_path_end u W).
  apply (qf_ok_behind u u' b b' W Hsuf); try assumption; [lia | rewrite P1, P2; unfold shift; lia | rewrite P3].
  pose proof W as W0. apply wf_b_iff in W0. destruct W0 as (_ & _ & (_ & _ & _ & Q4 & _)). exact Q4.
Qed.

Lemma sfx_pathstart_ok : pathstart_ok u -> pathstart_ok u'.
Proof.
  intros PS. pose proof Hsh as (E1 & E2 & E3). destruct (wf_ps_le_path_end u W).
  unfold pathstart_ok. rewrite E1, !(sfx_byte u u' b b' Hsuf) by lia.
  destruct PS as [PS|PS]; [left|right; exact PS].
  rewrite (sfx_len u u' b b' W Hsuf) by (try assumption; lia). rewrite PS. reflexivity.
Qed.

Hypothesis W' : wf_b u' = true.

Lemma sfx_path : path u' = path u.
Proof.
  rewrite (path_eval u' W'), (path_eval u W). unfold piece.
  change (pidx u' AfterPath) with (path_end u'). change (pidx u AfterPath) with (path_end u). cbn [pidx].
  destruct sfx_path_piece as (_ & _ & E). rewrite E. reflexivity.
Qed.

End Suffix.

(* the offset arithmetic of the setters *)
Lemma adjust_ok dbg idx a b0 : a <= idx -> adjust dbg idx a b0 = Some (idx - a + b0).
Proof. intros H. unfold adjust. replace (a <=? idx) with true by lia. reflexivity. Qed.

Lemma adjust_opt_ok dbg idx a b0 : (match idx with Some i => a <= i | None => True end) ->
  adjust_opt dbg idx a b0 = Some (option_map (shift a b0) idx).
Proof.
  intros H. unfold adjust_opt. destruct idx as [i|]; [|reflexivity]. rewrite adjust_ok by exact H. reflexivity.
Qed.

Lemma wf_tail_offsets_ge u x : wf_b u = true -> x <= path_start u ->
  (match query_start u with Some i => x <= i | None => True end)
  /\ (match fragment_start u with Some i => x <= i | None => True end).
Proof.
  intros W H. pose proof (wf_qf_facts u W) as QF. pose proof (qf_q QF) as F1. pose proof (qf_f QF) as F2.
  split; [destruct (query_start u); [lia | exact I] | destruct (fragment_start u); [lia | exact I]].
Qed.

(* the part after the path, as one relation *)
Definition same_back (dbg : bool) (u u' : url) : Prop :=
  path u' = path u /\ query dbg u' = query dbg u /\ fragment dbg u' = fragment dbg u.

Lemma sfx_back dbg u u' b b' : wf_b u = true -> wf_b u' = true -> agree_suf b b' (ser u) (ser u') ->
  b <= path_start u -> b' <= nlen (ser u') -> shifted_tail b b' u u' -> same_back dbg u u'.
Proof.
  intros W W' S Hb Hb' Sh. pose proof Sh as (_ & E2 & E3). destruct (wf_ps_le_path_end u W).
  split; [|split].
  - eapply sfx_path; eassumption.
  - apply (sfx_query u u' b b'); try assumption; lia.
  - apply (sfx_fragment u u' b b'); try assumption; lia.
Qed.

(* the shared part starts at or before the host *)
Definition shifted_auth (b b' : N) (u u' : url) : Prop :=
  host_start u' = shift b b' (host_start u) /\ host_end u' = shift b b' (host_end u)
  /\ hosti u' = hosti u /\ port u' = port u.

Section AuthSuffix.
Variables (u u' : url) (b b' : N).
Hypothesis W : wf_b u = true.
Hypothesis Ha : has_authority_b u = true.
Hypothesis Hsuf : agree_suf b b' (ser u) (ser u').
Hypothesis Hb : b <= host_start u.
Hypothesis Hb' : b' <= nlen (ser u').
Hypothesis Hsh : shifted_tail b b' u u'.
Hypothesis Hsa : shifted_auth b b' u u'.

Lemma asfx_bounds : host_start u <= host_end u /\ host_end u <= path_start u /\ path_start u <= nlen (ser u).
Proof. pose proof (wf_auth_facts u W Ha) as F. pose proof (af_he F); pose proof (af_ps F); pose proof (af_len F). lia. Qed.

Lemma asfx_port_ok : port_ok u'.
Proof.
  pose proof (af_port (wf_auth_facts u W Ha)) as P. destruct asfx_bounds as (B1 & B2 & B3).
  destruct Hsh as (E1 & _). destruct Hsa as (S1 & S2 & S3 & S4).
  unfold port_ok. rewrite S4, E1, S2. destruct (port u) as [p|].
  - destruct P as (P1 & P2 & P3 & P4). split; [|split; [|split]].
    + rewrite (suf_byte_eqb b b' _ _ (host_end u)) by (try exact Hsuf; try lia; reflexivity). exact P1.
    + unfold shift. lia.
    + exact P3.
    + replace (shift b b' (host_end u) + 1) with (shift b b' (host_end u + 1)) by (unfold shift; lia).
      rewrite (sfx_piece u u' b b' Hsuf) by lia. exact P4.
  - unfold shift. lia.
Qed.

Lemma asfx_host_text_ok : host_text_ok u -> host_text_ok u'.
Proof.
  intros HT Hh. destruct Hsa as (S1 & S2 & S3 & S4). unfold has_host in Hh. rewrite S3 in Hh.
  destruct (HT Hh) as (T1 & T2 & T3). rewrite S1, S2.
  rewrite (suf_byte_eqb b b' _ _ (host_start u) _ 58) by (try exact Hsuf; try lia; reflexivity).
  rewrite (suf_byte_eqb b b' _ _ (host_start u) _ 64) by (try exact Hsuf; try lia; reflexivity).
  split; [unfold shift; lia | tauto].
Qed.

Hypothesis W' : wf_b u' = true.

Lemma asfx_host_str : host_str u' = host_str u.
Proof.
  rewrite (host_str_eval u' W'), (host_str_eval u W). destruct Hsa as (S1 & S2 & S3 & S4).
  unfold has_host. rewrite S3. destruct asfx_bounds as (B1 & B2 & B3).
  destruct (hosti u); try reflexivity; unfold piece; cbn [pidx]; rewrite S1, S2;
    rewrite (sfx_piece u u' b b' Hsuf) by lia; reflexivity.
Qed.

Lemma asfx_back dbg : same_back dbg u u'.
Proof. destruct asfx_bounds as (B1 & B2 & B3). apply (sfx_back dbg u u' b b'); try assumption. lia. Qed.

End AuthSuffix.
