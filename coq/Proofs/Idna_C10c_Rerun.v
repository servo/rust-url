(* Proofs/Idna_C10c_Rerun.v - the SECOND run: to_ascii applied to a name that is a run of pass-through labels followed by
   labels o_1 .. o_n, each of which (RT) the fail-fast label step turns into one buffer label dbl_i with a
   MixedCaseAscii / MixedCasePunycode entry that leaves the input unflushed.  Such a name is returned unchanged
   (Borrowed).  The bidi facts are supplied for the buffer of ALL processed labels; the second run may absorb a few
   leading ones (all ASCII) into its pass-through prefix. *)
From RU Require Import Base.Prelude Base.Utf8 Base.U32_c13 Gen.Tables Model.Punycode Model.Uts46
  Proofs.Idna_Sim Proofs.Idna_Api Proofs.Idna_Known Proofs.Idna_Hyp Proofs.Idna_Redisc Proofs.Idna_Tables
  Proofs.Idna_C10_Deny Proofs.Idna_C10_Prefix Proofs.Idna_C10_Inner Proofs.Idna_C10_Walk
  Proofs.Idna_C10b_AsciiInner Proofs.Idna_WalkFun Proofs.Idna_WalkInv Proofs.Idna_WalkApi Proofs.Idna_WalkPass
  Proofs.Idna_C10c_Start Proofs.Idna_C10c_Drun Proofs.Idna_C10c_Loop Proofs.Idna_Mark.

Definition triple := (list N * list N * aal)%type.
Definition t_o (t : triple) : list N := fst (fst t).
Definition t_d (t : triple) : list N := snd (fst t).
Definition t_e (t : triple) : aal := snd t.

Lemma join_concat x xs : join_dots (x :: xs) = x ++ concat (map (fun y => DOT :: y) xs).
Proof.
  revert x. induction xs as [|y r IH]; intros x; [cbn [join_dots map concat]; rewrite app_nil_r; reflexivity|].
  rewrite join_dots_cons2, IH. reflexivity.
Qed.

Section Bidi.
Variable A : adapter.
Variable cfg : bool.

Lemma is_bidi_app a b : is_bidi A cfg (a ++ b) = match is_bidi A cfg a with Ok false => is_bidi A cfg b | r => r end.
Proof.
  induction a as [|c r IH]; [reflexivity|]. cbn [app is_bidi].
  destruct (c <? T_IDNA_BIDI_BELOW); [exact IH|].
  destruct T_IDNA_BIDI_SKIP as [|[lo1 hi1] others].
  - destruct (bc_rtl (bidi_class A c)); [reflexivity|exact IH].
  - destruct (in_inclusive_range32 c lo1 hi1).
    + destruct (cfg && (c =? 8207)); [reflexivity|exact IH].
    + destruct (existsb (fun p => in_inclusive_range32 c (fst p) (snd p)) others); [exact IH|].
      destruct (bc_rtl (bidi_class A c)); [reflexivity|exact IH].
Qed.
Lemma is_bidi_dot l : is_bidi A cfg (DOT :: l) = is_bidi A cfg l.
Proof.
  cbn [is_bidi]. replace (DOT <? T_IDNA_BIDI_BELOW) with true; [reflexivity|].
  symmetry. apply N.ltb_lt. rewrite (proj1 idna_ranges). unfold DOT. lia.
Qed.
Lemma is_bidi_join ls : is_bidi A cfg (join_dots ls) = is_bidi A cfg (concat ls).
Proof.
  induction ls as [|l r IH]; [reflexivity|]. destruct r as [|x r'].
  - cbn [join_dots concat]. rewrite app_nil_r. reflexivity.
  - rewrite join_dots_cons2. cbn [concat] in *. rewrite (is_bidi_app l (DOT :: join_dots (x :: r'))), (is_bidi_app l (x ++ concat r')), is_bidi_dot, IH. reflexivity.
Qed.
Lemma is_bidi_drop k (L : list (list N)) : Forall (fun l => Forall (fun b => b < 128) l) (firstn k L) ->
  is_bidi A cfg (join_dots (skipn k L)) = is_bidi A cfg (join_dots L).
Proof.
  intros H. rewrite !is_bidi_join. rewrite <- (firstn_skipn k L) at 2. rewrite concat_app, is_bidi_app.
  rewrite (is_bidi_ascii A cfg (concat (firstn k L))); [reflexivity|].
  induction H as [|x r Hx _ IH]; [constructor|]. cbn [concat]. apply Forall_app. split; assumption.
Qed.
End Bidi.

Section Rerun.
Variable A : adapter.
Variable cfg : bool.
Variable deny : N.
Variable hy : hyphens.

Definition RT (o dbl : list N) (e : aal) : Prop :=
  nodot o /\ nodot dbl /\
  match o with
  | [] => dbl = [] /\ e = MixedCaseAscii []
  | _ => forall db ap, label_nonempty A cfg true hy deny o db false ap = SOk (db ++ dbl, false, ap ++ [e])
  end /\
  stay_label is_ascii_l dbl e = true /\
  (is_passthrough_ascii_label o = true -> Forall (fun b => b < 128) dbl).
Definition RT3 (t : triple) : Prop := RT (t_o t) (t_d t) (t_e t).

Definition r_step (o dbl : list N) (e : aal) (s : ist) : ist :=
  if i_inpre s && is_passthrough_ascii_label o then
    {| i_ptu := i_ptu s + (if i_seen s then 1 else 0) + len o; i_seen := true; i_inpre := true;
       i_db := i_db s; i_he := i_he s; i_ap := i_ap s |}
  else
    {| i_ptu := if i_seen s && i_inpre s then i_ptu s + 1 else i_ptu s; i_seen := true; i_inpre := false;
       i_db := (if i_seen s && negb (i_inpre s) then i_db s ++ [DOT] else i_db s) ++ dbl;
       i_he := false; i_ap := i_ap s ++ [e] |}.

Lemma label_step_rt o dbl e s : RT o dbl e -> i_he s = false ->
  label_step A cfg true hy deny o s = SOk (r_step o dbl e s).
Proof.
  intros (_ & _ & Hrun & _) Hhe. unfold label_step, r_step.
  destruct (i_inpre s && is_passthrough_ascii_label o); [reflexivity|].
  destruct o as [|b r].
  - destruct Hrun as [-> ->]. rewrite app_nil_r, Hhe. reflexivity.
  - rewrite Hhe, Hrun. reflexivity.
Qed.

Lemma rloop2 T : forall s, Forall RT3 T -> i_he s = false -> i_inpre s = false -> i_seen s = true ->
  labels_loop A cfg true hy deny (map t_o T) s =
  SOk {| i_ptu := i_ptu s; i_seen := true; i_inpre := false;
         i_db := i_db s ++ concat (map (fun t => DOT :: t_d t) T); i_he := false; i_ap := i_ap s ++ map t_e T |}.
Proof.
  induction T as [|t T IH]; intros s HT Hhe Hin Hse; cbn [map labels_loop concat].
  - rewrite !app_nil_r. destruct s as [p se ip db he ap]. cbn [i_ptu i_seen i_inpre i_db i_he i_ap] in *. subst. reflexivity.
  - inversion HT as [|? ? Ht HT']; subst. rewrite (label_step_rt _ _ _ s Ht Hhe). cbn [sbind].
    unfold r_step. rewrite Hin, Hse. cbn [andb negb].
    match goal with |- labels_loop _ _ _ _ _ _ ?s1 = _ => rewrite (IH s1 HT' eq_refl eq_refl eq_refl) end.
    cbn [i_ptu i_seen i_inpre i_db i_he i_ap].
    rewrite <- !app_assoc. reflexivity.
Qed.

Lemma rloop1 T : forall s, Forall RT3 T -> i_he s = false -> i_inpre s = true -> i_db s = [] -> i_ap s = [] ->
  exists s', labels_loop A cfg true hy deny (map t_o T) s = SOk s' /\ i_he s' = false /\
    ((i_db s' = [] /\ i_ap s' = []) \/
     exists k, (k < length T)%nat /\ Forall (fun t => Forall (fun b => b < 128) (t_d t)) (firstn k T) /\
       i_db s' = join_dots (map t_d (skipn k T)) /\ i_ap s' = map t_e (skipn k T)).
Proof.
  induction T as [|t T IH]; intros s HT Hhe Hin Hdb Hap; cbn [map labels_loop].
  - exists s. split; [reflexivity|]. split; [exact Hhe|]. left. split; assumption.
  - inversion HT as [|? ? Ht HT']; subst. rewrite (label_step_rt _ _ _ s Ht Hhe). cbn [sbind].
    unfold r_step. rewrite Hin. cbn [andb negb]. destruct (is_passthrough_ascii_label (t_o t)) eqn:Ep.
    + match goal with |- exists s', labels_loop _ _ _ _ _ _ ?s1 = _ /\ _ => destruct (IH s1 HT' Hhe eq_refl Hdb Hap) as (s' & Hl & Hh & Hc) end. exists s'. split; [exact Hl|]. split; [exact Hh|].
      destruct Hc as [Hc|(k & Hk & Hasc & Hd & Ha)]; [left; exact Hc|]. right. exists (Datatypes.S k).
      cbn [length firstn skipn]. split; [lia|]. split; [|split; assumption].
      constructor; [|exact Hasc]. destruct Ht as (_ & _ & _ & _ & Hpa). exact (Hpa Ep).
    + rewrite andb_false_r, Hdb, Hap. cbn [app].
      match goal with |- exists s', labels_loop _ _ _ _ _ _ ?s1 = _ /\ _ => rewrite (rloop2 T s1 HT' eq_refl eq_refl eq_refl) end.
      cbn [i_ptu i_seen i_inpre i_db i_he i_ap].
      eexists. split; [reflexivity|]. cbn [i_he i_db i_ap]. split; [reflexivity|]. right. exists 0%nat.
      cbn [length firstn skipn map]. split; [lia|]. split; [constructor|]. split; [|reflexivity].
      rewrite join_concat, map_map. reflexivity.
Qed.

Lemma stays_rt X : Forall RT3 X -> stays is_ascii_l (map t_d X) (map t_e X) = true.
Proof.
  induction 1 as [|t r Ht _ IH]; [reflexivity|]. cbn [map stays]. rewrite IH.
  destruct Ht as (_ & _ & _ & Hs & _). rewrite Hs. reflexivity.
Qed.

Lemma pass_nodot l : PassL l -> nodot l.
Proof.
  intros [Hb Hp]. unfold is_passthrough_ascii_label in Hp.
  destruct ((4 <=? len l) && (nth 2 l 0 =? HYPHEN) && (nth 3 l 0 =? HYPHEN)); [discriminate|].
  destruct l as [|f t]; [constructor|].
  inversion Hb as [|? ? Hf Ht]; subst. unfold is_byte in Hf.
  destruct (in_inclusive_range8 f 97 122) eqn:E1; [|discriminate]. cbn [negb] in Hp.
  destruct (forallb (fun b => in_inclusive_range8 b 97 122 || in_inclusive_range8 b 48 57 || (b =? HYPHEN)) t) eqn:E2; [|discriminate].
  constructor.
  - destruct (range8_spec f 97 122 Hf ltac:(lia) ltac:(lia) E1). unfold DOT. lia.
  - apply Forall_forall. intros x Hx. rewrite forallb_forall in E2. specialize (E2 x Hx).
    unfold bytes in Ht. rewrite Forall_forall in Ht. specialize (Ht x Hx). unfold is_byte in Ht.
    apply orb_true_iff in E2. destruct E2 as [E2|E2].
    + apply orb_true_iff in E2. destruct E2 as [E2|E2].
      * destruct (range8_spec x 97 122 Ht ltac:(lia) ltac:(lia) E2). unfold DOT. lia.
      * destruct (range8_spec x 48 57 Ht ltac:(lia) ltac:(lia) E2). unfold DOT. lia.
    + unfold HYPHEN, DOT in *. lia.
Qed.

Lemma to_ascii_of_inner r ptu bd db ap : bytes r ->
  process_inner A cfg true hy deny r = IRes ptu bd false db ap ->
  ((db = [] /\ ap = []) \/ stays is_ascii_l (split_on DOT db) ap = true) ->
  to_ascii A cfg r deny hy DIgnore = Ok (true, r).
Proof.
  intros Hb Hi Hc.
  destruct (inner_ff_facts A cfg hy deny r _ _ _ _ _ Hi) as [HX|[_ Hm]]; [inversion HX|].
  destruct (inner_mark_facts A cfg hy deny r _ _ _ _ _ Hb Hm) as [(-> & _ & _)|HB].
  - unfold to_ascii, process. rewrite Hi, N.eqb_refl, andb_false_r. reflexivity.
  - destruct Hc as [[-> ->]|Hst].
    + destruct HB as (_ & Hlen & _). discriminate Hlen.
    + pose proof HB as HB'. destruct HB' as (_ & _ & _ & _ & _ & P & rl & Hd & HP & Hcv & _).
      exact (to_ascii_walk_t A cfg r deny hy _ _ _ _ Hi HB P rl Hd HP Hcv Hst).
Qed.

Definition BOK (l : list N) : Prop := bidi_label A true l false = SOk (l, false).

Theorem rrun pl T r bd : Forall PassL pl -> T <> [] -> Forall RT3 T -> r = join_dots (pl ++ map t_o T) -> bytes r ->
  is_bidi A cfg (join_dots (map t_d T)) = Ok bd -> (bd = true -> Forall BOK (map t_d T)) ->
  to_ascii A cfg r deny hy DIgnore = Ok (true, r).
Proof.
  intros Hpl HTne HT Hr Hb Hbidi Hbok.
  assert (Hlabels : split_on DOT r = pl ++ map t_o T).
  { rewrite Hr. apply split_join.
    - destruct pl; [destruct T; [contradiction HTne; reflexivity|discriminate]|discriminate].
    - apply Forall_app. split.
      + eapply Forall_impl; [|exact Hpl]. intros l. apply pass_nodot.
      + apply Forall_forall. intros o Ho. apply in_map_iff in Ho. destruct Ho as (t & <- & Hin).
        rewrite Forall_forall in HT. exact (proj1 (HT t Hin)). }
  assert (Hinner : exists ptu bd' db ap, process_inner A cfg true hy deny r = IRes ptu bd' false db ap /\
             ((db = [] /\ ap = []) \/ stays is_ascii_l (split_on DOT db) ap = true)).
  { rewrite (inner_from_start A cfg true hy deny r Hb). unfold process_innermost. rewrite N.sub_diag. fold s_start.
    rewrite Hlabels, labels_loop_app.
    rewrite (pass_loop A cfg true hy deny pl s_start eq_refl); [|eapply Forall_impl; [|exact Hpl]; intros l Hl; exact (proj2 Hl)].
    cbn [sbind].
    assert (HS : i_he (pass_end s_start pl) = false /\ i_inpre (pass_end s_start pl) = true /\
                 i_db (pass_end s_start pl) = [] /\ i_ap (pass_end s_start pl) = []).
    { unfold pass_end. destruct pl; repeat split. }
    destruct HS as (S1 & S2 & S3 & S4).
    destruct (rloop1 T _ HT S1 S2 S3 S4) as (s' & Hl & Hhe & Hc). rewrite Hl.
    destruct Hc as [[Hd Ha]|(k & Hk & Hasc & Hd & Ha)].
    - rewrite Hd. cbn [is_bidi]. exists (i_ptu s'), false, [], []. rewrite Hhe, Ha. split; [reflexivity|]. left. split; reflexivity.
    - assert (HX : Forall RT3 (skipn k T)).
      { rewrite <- (firstn_skipn k T) in HT. apply Forall_app in HT. exact (proj2 HT). }
      assert (Hne : map t_d (skipn k T) <> []).
      { intros E. apply (f_equal (@length (list N))) in E. rewrite map_length, skipn_length in E. cbn [length] in E. lia. }
      assert (Hnd : Forall nodot (map t_d (skipn k T))).
      { apply Forall_forall. intros x Hx. apply in_map_iff in Hx. destruct Hx as (t & <- & Hin).
        rewrite Forall_forall in HX. exact (proj1 (proj2 (HX t Hin))). }
      assert (Hib : is_bidi A cfg (i_db s') = Ok bd).
      { rewrite Hd, <- skipn_map, (is_bidi_drop A cfg k (map t_d T)); [exact Hbidi|].
        rewrite firstn_map. apply Forall_forall. intros x Hx. apply in_map_iff in Hx. destruct Hx as (t & <- & Hin).
        rewrite Forall_forall in Hasc. exact (Hasc t Hin). }
      rewrite Hib. destruct bd.
      + rewrite Hd, (split_join _ Hne Hnd), Hhe.
        assert (HB2 : Forall BOK (map t_d (skipn k T))).
        { specialize (Hbok eq_refl). rewrite <- skipn_map. rewrite <- (firstn_skipn k (map t_d T)) in Hbok.
          apply Forall_app in Hbok. exact (proj2 Hbok). }
        rewrite (bidi_labels_ok A _ HB2).
        exists (i_ptu s'), true, (join_dots (map t_d (skipn k T))), (i_ap s'). split; [reflexivity|]. right.
        rewrite (split_join _ Hne Hnd), Ha. exact (stays_rt _ HX).
      + exists (i_ptu s'), false, (i_db s'), (i_ap s'). rewrite Hhe. split; [reflexivity|]. right.
        rewrite Hd, (split_join _ Hne Hnd), Ha. exact (stays_rt _ HX). }
  destruct Hinner as (ptu & bd' & db & ap & Hi & Hc). exact (to_ascii_of_inner r ptu bd' db ap Hb Hi Hc).
Qed.
End Rerun.
