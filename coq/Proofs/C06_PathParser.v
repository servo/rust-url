(* Proofs/C06_PathParser.v - what the path states of the parser (setter contexts) do to the
   serialization: the text in front of the path is kept, and nothing they write is '?' or '#'. *)
From RU Require Import Base.Prelude Base.Utf8 Base.Utf8Facts Model.AsciiSet Gen.Tables Model.PercentEncoding
  Model.HostT Model.UrlRecord Model.Parser Model.Setters Model.WF
  Proofs.C14_Set Proofs.C14_Enc Proofs.C14_Views
  Proofs.ListN Proofs.C03_WF Proofs.C06_List Proofs.C06_WFI Proofs.C06_Tail Proofs.C06_Steps Proofs.C06_FragQuery.

(* encodings contain no '?' / '#' when the set encodes them *)
Lemma hex_upper_no_qh_sweep : all_below 16 (fun d => no_qh (hex_upper d)) = true.
Proof. vm_compute. reflexivity. Qed.

Lemma encode_no_qh set bs : bytes bs -> should_encode set 63 = true -> should_encode set 35 = true ->
  forallb no_qh (encode set bs) = true.
Proof.
  intros Hb H63 H35. induction bs as [|b r IH]; [reflexivity|].
  inversion Hb as [|? ? Hb1 Hr]; subst. rewrite encode_cons. apply forallb_app_iff. split; [|apply IH; exact Hr].
  unfold enc1. destruct (should_encode set b) eqn:E.
  - unfold enc_byte_spec. cbn [forallb]. unfold is_byte in Hb1.
    assert (forall d, d < 16 -> no_qh (hex_upper d) = true) as Hh
      by (intros d Hd; apply (all_below_spec 16 _ hex_upper_no_qh_sweep d Hd)).
    rewrite !Hh by lia. reflexivity.
  - cbn [forallb]. rewrite andb_true_r. unfold no_qh.
    destruct (b =? 63) eqn:E1; [apply N.eqb_eq in E1; subst b; congruence|].
    destruct (b =? 35) eqn:E2; [apply N.eqb_eq in E2; subst b; congruence|]. reflexivity.
Qed.

Lemma path_set_encodes_qh ctx st : should_encode (path_set ctx st) 63 = true /\ should_encode (path_set ctx st) 35 = true.
Proof. unfold path_set. destruct (ctx_eqb ctx CPathSegmentSetter), (st_is_special st); split; vm_compute; reflexivity. Qed.

Lemma push_encoded_no_qh ctx st t : usv_list t ->
  forallb no_qh (pe_display (path_set ctx st) (utf8_encode t)) = true.
Proof.
  intros H. rewrite pe_display_is_encode by (apply utf8_encode_bytes; exact H).
  destruct (path_set_encodes_qh ctx st). apply encode_no_qh; [apply utf8_encode_bytes; exact H | assumption | assumption].
Qed.

(* rfind stays inside the list *)
Lemma rfind_aux_bound b l : forall i0 last j, rfind_aux b l i0 last = Some j ->
  last = Some j \/ (i0 <= j /\ j < i0 + nlen l).
Proof.
  induction l as [|x r IH]; intros i0 last j H; cbn [rfind_aux] in H.
  - left. exact H.
  - apply IH in H. rewrite nlen_cons. destruct H as [H|H]; [|right; lia].
    destruct (x =? b); [inversion H; subst; right; lia | left; exact H].
Qed.

Lemma rfind_bound b l j : rfind b l = Some j -> j < nlen l.
Proof. intros H. apply rfind_aux_bound in H. destruct H as [H|H]; [discriminate | lia]. Qed.

Lemma drop_while_forallb {f g : N -> bool} l : forallb f l = true -> forallb f (drop_while g l) = true.
Proof.
  induction l as [|c r IH]; intros H; [reflexivity|]. cbn [drop_while]. destruct (g c); [|exact H].
  cbn [forallb] in H. apply andb_true_iff in H. apply IH. tauto.
Qed.

Lemma usv_list_rev l : usv_list l -> usv_list (rev l).
Proof. unfold usv_list. apply Forall_rev. Qed.

Section PathInv.
Variables (dbg : bool) (ps m : N) (pre : list N).
Hypothesis Hm1 : ps <= m.
Hypothesis Hm2 : m <= ps + 1.
Hypothesis Hpre : nlen pre = m.

(* the first m bytes are `pre`; from ps on there is neither '?' nor '#' *)
Definition PInv (ser : list N) : Prop := nfirstn m ser = pre /\ forallb no_qh (nskipn ps ser) = true.

Lemma pinv_len ser : PInv ser -> m <= nlen ser.
Proof.
  intros [H _]. assert (nlen (nfirstn m ser) = m) as E by (rewrite H; exact Hpre).
  unfold nlen, nfirstn in *. rewrite firstn_length in E. lia.
Qed.

Lemma pinv_app ser x : PInv ser -> forallb no_qh x = true -> PInv (ser ++ x).
Proof.
  intros H Hx. pose proof (pinv_len ser H) as L. destruct H as [H1 H2]. split.
  - rewrite nfirstn_app_le by exact L. exact H1.
  - rewrite nskipn_app_le by lia. apply forallb_app_iff. split; assumption.
Qed.

Lemma pinv_trunc ser n : PInv ser -> m <= n -> PInv (nfirstn n ser).
Proof.
  intros [H1 H2] Hn. split.
  - rewrite nfirstn_nfirstn by exact Hn. exact H1.
  - replace n with (ps + (n - ps)) by lia. rewrite nskipn_nfirstn_comm. apply forallb_nfirstn. exact H2.
Qed.

Lemma pinv_push_pending ctx st ser pending : PInv ser -> usv_list pending ->
  PInv (push_pending ctx st ser pending).
Proof.
  intros H Hp. unfold push_pending. destruct pending as [|c r]; [exact H|].
  unfold push_encoded. apply pinv_app; [exact H|]. apply push_encoded_no_qh. apply usv_list_rev. exact Hp.
Qed.

Lemma pinv_pop_path st ser s' : pop_path st ps ser = POk s' -> PInv ser -> PInv s'.
Proof.
  unfold pop_path. intros H I. destruct (ps <? nlen ser); [|inversion H; subst; exact I].
  destruct (rfind 47 (nskipn ps ser)) as [sp|]; [|discriminate].
  destruct (st_is_file st && is_normalized_wdl (nskipn (ps + sp + 1) ser)); inversion H; subst; [exact I|].
  unfold truncate. apply pinv_trunc; [exact I | lia].
Qed.

Lemma pinv_shorten_path st ser s' : shorten_path st ps ser = POk s' -> PInv ser -> PInv s'.
Proof.
  unfold shorten_path. intros H I. destruct (nlen ser =? ps); [inversion H; subst; exact I|].
  destruct (st_is_file st && is_normalized_wdl (nskipn ps ser)); [inversion H; subst; exact I|].
  eapply pinv_pop_path; eassumption.
Qed.

Lemma last_slash_bound s1 : last_slash_can_be_removed s1 ps = true -> ps + 1 <= nlen s1 - 1.
Proof.
  unfold last_slash_can_be_removed. destruct (rfind 47 (nfirstn (nlen s1 - 1) s1)) as [p|] eqn:E; [|discriminate].
  intros H. apply andb_true_iff in H. destruct H as [H _]. apply rfind_bound in E.
  pose proof (nlen_nfirstn_le (nlen s1 - 1) s1). lia.
Qed.

Lemma is_wdl_head seg : is_wdl seg = true -> exists c r, seg = c :: r /\ is_alpha c = true.
Proof.
  unfold is_wdl, starts_with_wdl. destruct seg as [|a [|b rest]]; cbn; try discriminate; try (rewrite andb_false_r; discriminate).
  intros H. apply andb_true_iff in H. destruct H as [_ H]. apply andb_true_iff in H. destruct H as [H _].
  apply andb_true_iff in H. destruct H as [H _]. exists a, (b :: rest). split; [reflexivity | exact H].
Qed.

Lemma no_qh_alpha c : is_alpha c = true -> no_qh c = true.
Proof. unfold is_alpha, is_upper, is_lower, no_qh. lia. Qed.

Lemma pinv_finish_segment st ser seg_start ews hh s' hh' :
  finish_segment dbg st ps ser seg_start ews hh = POk (s', hh') -> PInv ser -> m <= seg_start -> PInv s'.
Proof.
  unfold finish_segment. intros H I Hs.
  destruct (slice_o ser seg_start (if ews then nlen ser - 1 else nlen ser)) as [seg|]; cbn [of_option pbind] in H; [|discriminate].
  destruct (is_double_dot seg).
  - match type of H with pbind ?c _ = _ => destruct c as [[]| |]; cbn [pbind] in H; try discriminate end.
    set (s1 := truncate ser seg_start) in *.
    assert (PInv s1) as I1 by (apply pinv_trunc; assumption).
    set (s2 := if ends_with_byte 47 s1 && last_slash_can_be_removed s1 ps then nfirstn (nlen s1 - 1) s1 else s1) in *.
    assert (PInv s2) as I2.
    { subst s2. destruct (ends_with_byte 47 s1 && last_slash_can_be_removed s1 ps) eqn:E; [|exact I1].
      apply andb_true_iff in E. destruct E as [_ E]. apply last_slash_bound in E.
      apply pinv_trunc; [exact I1 | lia]. }
    destruct (shorten_path st ps s2) as [s3| |] eqn:E3; cbn [pbind] in H; try discriminate.
    pose proof (pinv_shorten_path _ _ _ E3 I2) as I3.
    inversion H; subst. destruct (ews && negb (ends_with_byte 47 s3)); [|exact I3].
    apply pinv_app; [exact I3 | reflexivity].
  - destruct (is_single_dot seg).
    + inversion H; subst. assert (PInv (truncate ser seg_start)) as I1 by (apply pinv_trunc; assumption).
      destruct (ends_with_byte 47 (truncate ser seg_start)); [exact I1|]. apply pinv_app; [exact I1 | reflexivity].
    + destruct (st_is_file st && (seg_start =? ps + 1) && is_wdl seg) eqn:Ew; [|inversion H; subst; exact I].
      apply andb_true_iff in Ew. destruct Ew as [_ Ew]. destruct (is_wdl_head seg Ew) as (c & r & -> & Hc).
      inversion H; subst. apply pinv_app; [apply pinv_trunc; assumption|].
      cbn [app forallb]. rewrite (no_qh_alpha c Hc). destruct ews; reflexivity.
Qed.

Lemma pinv_file_path_fixup st ser : PInv ser -> (st_is_file st = true -> m = ps) -> PInv (file_path_fixup st ps ser).
Proof.
  intros I Hf. unfold file_path_fixup. destruct (st_is_file st) eqn:E; [|exact I].
  specialize (Hf eq_refl). pose proof (pinv_len ser I) as L. destruct I as [I1 I2].
  assert (nlen (nfirstn ps ser) = ps) as Lp by (apply nlen_nfirstn; lia).
  split.
  - rewrite Hf in *. rewrite nfirstn_app_le by lia. rewrite nfirstn_nfirstn by lia. exact I1.
  - rewrite nskipn_app_ge by lia. rewrite Lp, N.sub_diag, nskipn_0.
    cbn [app forallb]. apply drop_while_forallb. exact I2.
Qed.

(* the loop in the two setter contexts: the result is the file fix-up of a serialization that
   satisfies the invariant *)
Lemma pinv_loop ctx st l : ctx_eqb ctx CUrlParser = false -> (st_is_file st = true -> m = ps) ->
  forall ser seg_start pending hh s' hh' rem,
  parse_path_loop dbg ctx st ps l ser seg_start pending hh = POk (s', hh', rem) ->
  PInv ser -> m <= seg_start -> usv_list l -> usv_list pending ->
  exists x, s' = file_path_fixup st ps x /\ PInv x.
Proof.
  intros Hctx Hf. induction l as [|c r IH]; intros ser seg_start pending hh s' hh' rem H I Hs Hl Hp;
    cbn [parse_path_loop] in H.
  - destruct (finish_segment dbg st ps (push_pending ctx st ser pending) seg_start false hh) as [[s2 h2]| |] eqn:E;
      cbn [pbind] in H; try discriminate.
    inversion H; subst. exists s2. split; [reflexivity|].
    eapply pinv_finish_segment; [exact E | apply pinv_push_pending; assumption | exact Hs].
  - inversion Hl as [|? ? Hc Hr]; subst.
    destruct (is_tnl c).
    { eapply IH; [exact H | apply pinv_push_pending; assumption | exact Hs | exact Hr | constructor]. }
    destruct (negb (ctx_eqb ctx CPathSegmentSetter) && ((c =? 47) || (c =? 92) && st_is_special st)).
    { destruct (finish_segment dbg st ps (push_pending ctx st ser pending ++ [47]) seg_start true hh) as [[s2 h2]| |] eqn:E;
        cbn [pbind] in H; try discriminate.
      assert (PInv s2) as I2.
      { eapply pinv_finish_segment; [exact E | | exact Hs]. apply pinv_app; [apply pinv_push_pending; assumption | reflexivity]. }
      eapply IH; [exact H | exact I2 | apply pinv_len; exact I2 | exact Hr | constructor]. }
    rewrite Hctx, andb_false_r in H.
    destruct (st_is_file st && (ps <? nlen ser) && is_normalized_wdl (nskipn (ps + 1) ser)).
    { eapply IH; [exact H | | | exact Hr | constructor; [exact Hc | constructor]].
      - apply pinv_app; [apply pinv_push_pending; assumption | reflexivity].
      - lia. }
    eapply IH; [exact H | exact I | exact Hs | exact Hr | constructor; assumption].
Qed.

End PathInv.
