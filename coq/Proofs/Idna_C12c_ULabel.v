(* Proofs/Idna_C12c_ULabel.v - C12: the label step on the UTF-8 form of a non-ASCII buffer label.
   pres_unicode: a non-ASCII text dbl of scalar values that normalize_validate fixes, whose characters pass the deny
   list (with the dot), that passes check_label with both optional checks on and does not start with xn--, is turned
   by the fail-fast label step applied to utf8_encode dbl into the buffer label dbl with the entry AalOther.
   uts46.rs copies the ASCII prefix of the input label except its last character into the buffer and maps the rest:
   MapPrefix splits map_normalize accordingly, NvMapFix (Proofs/Idna_C12c_Stmt4.v) makes dbl a fixed point of it. *)
From RU Require Import Base.Prelude Base.Utf8 Base.Utf8Facts Base.U32_c13 Gen.Tables Model.Punycode Model.Uts46
  Proofs.Idna_Sim Proofs.Idna_Api Proofs.Idna_Known Proofs.Idna_Hyp Proofs.Idna_Redisc
  Proofs.Idna_C10_Deny Proofs.Idna_C10_Prefix Proofs.Idna_C10_Inner Proofs.Idna_C10_Walk
  Proofs.Idna_C10b_AsciiInner Proofs.Idna_C10b_AsciiWalk Proofs.Idna_C10b_Stmt Proofs.Idna_WalkInv Proofs.Idna_WalkEnc Proofs.Idna_WalkFun
  Proofs.Idna_C10c_Puny Proofs.Idna_C10c_Start Proofs.Idna_C10c_Drun Proofs.Idna_C10c_Loop Proofs.Idna_C10c_Rerun
  Proofs.Idna_C10c_Idem Proofs.Idna_Mark Proofs.Idna_C10d_CaseLabel Proofs.Idna_C10d_CaseLoop Proofs.Idna_C12c_Stmt4.

Lemma utf8_encode_ascii a : Forall (fun b => b < 128) a -> utf8_encode a = a.
Proof.
  induction 1 as [|x r Hx _ IH]; [reflexivity|]. unfold utf8_encode in *. cbn [flat_map]. rewrite IH.
  unfold utf8_encode1. replace (x <? 128) with true by lia. reflexivity.
Qed.
Lemma utf8_encode1_head c : 128 <= c -> exists b t, utf8_encode1 c = b :: t /\ 128 <= b.
Proof.
  intros H. unfold utf8_encode1. replace (c <? 128) with false by lia.
  destruct (c <? 2048); [eexists; eexists; split; [reflexivity|lia]|].
  destruct (c <? 65536); eexists; eexists; (split; [reflexivity|lia]).
Qed.
Lemma nonascii_split l : is_ascii_l l = false -> exists a c r, l = a ++ c :: r /\ Forall (fun b => b < 128) a /\ 128 <= c.
Proof.
  induction l as [|x t IH]; [discriminate|]. unfold is_ascii_l in *. cbn [forallb]. unfold is_ascii_cp at 1.
  destruct (x <? 128) eqn:E; cbn [andb]; intros H.
  - destruct (IH H) as (a & c & r & -> & Ha & Hc). exists (x :: a), c, r. split; [reflexivity|]. split; [constructor; [lia|exact Ha]|exact Hc].
  - exists [], x, t. split; [reflexivity|]. split; [constructor|lia].
Qed.
Lemma position_app_ascii a b t : Forall (fun x => x < 128) a -> 128 <= b ->
  position (fun x => negb (is_ascii_cp x)) (a ++ b :: t) = Some (length a).
Proof.
  induction 1 as [|x r Hx _ IH]; intros Hb; cbn [app position length]; unfold is_ascii_cp at 1.
  - replace (b <? 128) with false by lia. reflexivity.
  - replace (x <? 128) with true by lia. cbn [negb]. rewrite (IH Hb). reflexivity.
Qed.
Lemma snoc_cases {X} (l : list X) : l = [] \/ exists a x, l = a ++ [x].
Proof. destruct l as [|y t]; [left; reflexivity|right]. destruct (exists_last (l := y :: t) ltac:(discriminate)) as (a & x & E). exists a, x. exact E. Qed.

(* the split that label_nonempty makes of utf8_encode dbl: (asc, utf8_encode tail) with dbl = asc ++ tail *)
Lemma split_utf8 dbl : is_ascii_l dbl = false -> usv_list dbl ->
  exists asc tail, dbl = asc ++ tail /\ Forall (fun b => b < 128) asc /\ tail <> [] /\
    split_ascii_fast_path_prefix (utf8_encode dbl) = (asc, utf8_encode tail) /\ utf8_encode tail <> [] /\
    (asc <> [] -> exists x r, tail = x :: r /\ x < 128).
Proof.
  intros Hna Hu. destruct (nonascii_split dbl Hna) as (a0 & c & r & -> & Ha0 & Hc).
  destruct (utf8_encode1_head c Hc) as (b0 & t0 & Eb & Hb0).
  assert (Eenc : utf8_encode (a0 ++ c :: r) = a0 ++ b0 :: (t0 ++ utf8_encode r)).
  { rewrite utf8_encode_app, (utf8_encode_ascii a0 Ha0). unfold utf8_encode at 1. cbn [flat_map]. rewrite Eb. reflexivity. }
  assert (Ecr : utf8_encode (c :: r) = b0 :: (t0 ++ utf8_encode r)) by (unfold utf8_encode at 1; cbn [flat_map]; rewrite Eb; reflexivity).
  unfold split_ascii_fast_path_prefix. rewrite Eenc, (position_app_ascii a0 b0 _ Ha0 Hb0).
  destruct (snoc_cases a0) as [->|(a1 & x & ->)].
  - exists [], (c :: r). cbn [app length]. rewrite Ecr. repeat split; try discriminate; try constructor. intros H; contradiction H; reflexivity.
  - rewrite app_length. cbn [length]. replace (length a1 + 1)%nat with (Datatypes.S (length a1)) by lia.
    apply Forall_app in Ha0. destruct Ha0 as [Ha1 Hx]. inversion Hx as [|? ? Hx1 _]; subst.
    exists a1, (x :: c :: r). rewrite <- !app_assoc. cbn [app].
    rewrite firstn_app, firstn_all, Nat.sub_diag. cbn [firstn]. rewrite app_nil_r.
    rewrite skipn_app, skipn_all, Nat.sub_diag. cbn [skipn app].
    assert (Ex : utf8_encode (x :: c :: r) = x :: b0 :: (t0 ++ utf8_encode r)).
    { change (x :: c :: r) with ([x] ++ c :: r). rewrite utf8_encode_app, (utf8_encode_ascii [x]) by (constructor; [exact Hx1|constructor]). rewrite Ecr. reflexivity. }
    rewrite Ex. repeat split; try discriminate; try assumption. intros _. exists x, (c :: r). split; [reflexivity|exact Hx1].
Qed.

Lemma match_ne {X} (l : list N) (a b : X) : l <> [] -> match l with [] => a | _ :: _ => b end = b.
Proof. destruct l; [intros H; contradiction H; reflexivity|reflexivity]. Qed.
Lemma pres_ne A cfg deny hy l : l <> [] -> pres A cfg deny hy l = label_nonempty A cfg true hy deny l [] false [].
Proof. destruct l; [intros H; contradiction H; reflexivity|reflexivity]. Qed.

Lemma gc_apply_lower deny m c : gc (N.lor deny m) c -> apply_lower deny c = c.
Proof.
  intros H. pose proof (gc_okc deny m c H) as Ho. unfold apply_lower. destruct (c <? 128) eqn:E; [|reflexivity].
  assert (Hc : c < 128) by lia. specialize (Ho Hc). unfold deny_member in Ho. apply negb_false_iff in Ho. rewrite Ho. reflexivity.
Qed.
Lemma gc_map_lower deny m l : Forall (gc (N.lor deny m)) l -> map (apply_lower deny) l = l.
Proof. induction 1 as [|c r Hc _ IH]; [reflexivity|]. cbn [map]. rewrite IH, (gc_apply_lower deny m c Hc). reflexivity. Qed.

Section ULabel.
Variable A : adapter.
Variable cfg : bool.
Variable deny : N.
Variable hy : hyphens.
Hypothesis HU : DenyUpper deny.
Hypothesis HL : LdhFree deny.
Hypothesis HMP : MapPrefix A.
Hypothesis HMF : NvMapFix A.

Notation dd := (dd deny).

Lemma chk_nofcm x : chk A cfg hy x -> check_label A cfg true hy x false false true = SOk (x, false).
Proof.
  unfold chk, check_label. intros H. destruct (negb (hy_is_allow hy)).
  - rewrite check_hyphens_ff in *. destruct (hyphen_free (hy_is_cfl hy) x); cbn [sbind] in *; [|discriminate].
    destruct x as [|c t]; [exact H|]. destruct (is_mark A c); [discriminate|exact H].
  - cbn [sbind] in *. destruct x as [|c t]; [exact H|]. destruct (is_mark A c); [discriminate|exact H].
Qed.

Theorem pres_unicode dbl : normalize_validate A dbl = dbl -> Forall (gc dd) dbl -> chk A cfg hy dbl -> usv_list dbl ->
  is_ascii_l dbl = false -> starts_with dbl XN_PREFIX = false ->
  pres A cfg deny hy (utf8_encode dbl) = SOk (dbl, false, [AalOther]).
Proof.
  intros Hnv Hg Hchk Hu Hna Hxn.
  destruct (split_utf8 dbl Hna Hu) as (asc & tail & Hd & Hasc & Htne & Hsp & Hene & Hhead).
  assert (Hwne : utf8_encode dbl <> []).
  { intros E. rewrite E in Hsp. unfold split_ascii_fast_path_prefix in Hsp. cbn [position] in Hsp. inversion Hsp as [[E1 E2]]. symmetry in E2. contradiction. }
  rewrite (pres_ne A cfg deny hy _ Hwne), (label_nonempty_eq A cfg), Hsp. rewrite (match_ne (utf8_encode tail) _ _ Hene).
  pose proof Hg as Hg'. rewrite Hd in Hg'. apply Forall_app in Hg'. destruct Hg' as [Hga Hgt].
  pose proof Hu as Hu'. rewrite Hd in Hu'. unfold usv_list in Hu'. apply Forall_app in Hu'. destruct Hu' as [_ Hut].
  (* the ASCII prefix goes through the deny list unchanged *)
  assert (Hcl : Forall (clean deny) asc).
  { apply Forall_forall. intros c Hin. rewrite Forall_forall in Hasc, Hga. exact (gc_clean deny DOT_MASK c (Hasc c Hin) (Hga c Hin)). }
  (* map_normalize fixes the tail *)
  assert (Hmn : map_normalize A tail = tail).
  { pose proof (HMF dbl) as Hf. rewrite Hnv in Hf. specialize (Hf (proj2 (gc_map dd dbl Hg)) eq_refl).
    destruct asc as [|a0 ar]; [cbn [app] in Hd; rewrite <- Hd; exact Hf|].
    destruct (Hhead ltac:(discriminate)) as (x & r & -> & Hx).
    rewrite Hd, (HMP (a0 :: ar) x r (is_ascii_l_intro _ Hasc) Hx) in Hf.
    rewrite (lower_noupper (a0 :: ar)) in Hf.
    - apply app_inv_head in Hf. exact Hf.
    - eapply Forall_impl; [|exact Hcl]. intros c Hc. exact (proj1 (proj2 (clean_final deny c HU Hc))). }
  unfold complexF. fold (cmap deny asc). rewrite (cmap_clean deny asc Hcl), (scan_mark_ff is_fffd asc false), (clean_nofffd deny asc Hcl).
  cbn [sbind]. rewrite (utf8_lossy_encode tail Hut), Hmn, (gc_map_lower deny DOT_MASK tail Hgt).
  rewrite (split1_nodot_id tail (gc_all_nodot deny tail Hgt)). fold dd.
  cbn [sublabels]. rewrite (scan_mark_ff is_fffd tail false). destruct (gc_map dd tail Hgt) as [_ Hft]. unfold fffd in Hft. rewrite Hft.
  cbn [sbind]. rewrite <- Hd. unfold end_sublabel. rewrite Hxn.
  assert (Hck : check_label A cfg true hy dbl false (match asc with [] => true | _ :: _ => false end) true = SOk (dbl, false)).
  { destruct asc; [exact Hchk|exact (chk_nofcm dbl Hchk)]. }
  rewrite (match_ne (utf8_encode tail) _ _ Hene), Hck. cbn [sbind app]. reflexivity.
Qed.
End ULabel.
