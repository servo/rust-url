(* Proofs/C07_EqHostLayout.v - model-side groundwork of the C07 equivalence for the hostname setter:
   the scan of Parser::parse_host is the scan of the Standard's host state (hscan of
   Proofs/C07_SpecHost.v); Url::set_host_internal without new port, evaluated: the record it builds
   (with_host_auth / with_host_noauth of Proofs/C06_Host.v) has an authority and no "//@". *)
From RU Require Import Base.Prelude Base.Utf8 Base.Utf8Facts Model.AsciiSet Gen.Tables Model.PercentEncoding
  Model.HostT Model.UrlRecord Model.Parser Model.Setters Model.WF Model.KnownC01 Model.KnownC07 Spec.Whatwg
  Proofs.ListN Proofs.C03_WF Proofs.C06_List Proofs.C06_WFI Proofs.C06_Tail Proofs.C06_Suffix Proofs.C06_Front
  Proofs.C06_Steps Proofs.C06_Port Proofs.C06_Host Proofs.C08_Input
  Proofs.C01_EqRun Proofs.C01_EqAuthSpec Proofs.C07_Defs Proofs.C07_Corr Proofs.C07_SpecRun Proofs.C07_EqCred
  Proofs.C07_SpecProto Proofs.C07_SpecHost.

Lemma host_scan_fst sp l : forall br acc,
  fst (host_scan sp br acc l) = fst (hscan sp br (rev acc) (ntnl l)).
Proof.
  induction l as [|c r IH]; intros br acc; [reflexivity|]. cbn [host_scan]. destruct (is_tnl c) eqn:Et.
  - rewrite ntnl_cons_tnl by exact Et. apply IH.
  - rewrite ntnl_cons by exact Et. cbn [hscan].
    destruct ((c =? 58) && negb br) eqn:Ecol; cbn [orb]; [reflexivity|].
    assert (((c =? 92) && sp) || (c =? 47) || (c =? 63) || (c =? 35) = h_end sp c) as E
      by (unfold h_end; destruct (c =? 92), sp, (c =? 47), (c =? 63), (c =? 35); reflexivity).
    rewrite E. destruct (h_end sp c); [reflexivity|].
    unfold br_next. destruct (c =? 91); [rewrite IH; reflexivity|].
    destruct (c =? 93); rewrite IH; reflexivity.
Qed.

(* the scan stops at a ':' outside brackets exactly on the values of class K2 *)
Lemma hscan_colon sp t : forall br buf, snd (hscan sp br buf t) = host_colon_from sp br t.
Proof.
  induction t as [|c r IH]; intros br buf; [reflexivity|]. cbn [hscan host_colon_from].
  destruct (c =? 91) eqn:E91.
  { apply N.eqb_eq in E91. subst c.
    assert ((91 =? 58) && negb br = false) as A1 by reflexivity. rewrite A1.
    assert (h_end sp 91 = false) as A2 by (destruct sp; reflexivity). rewrite A2.
    assert (br_next br 91 = true) as A3 by reflexivity. rewrite A3. apply IH. }
  destruct (c =? 93) eqn:E93.
  { apply N.eqb_eq in E93. subst c.
    assert ((93 =? 58) && negb br = false) as A1 by reflexivity. rewrite A1.
    assert (h_end sp 93 = false) as A2 by (destruct sp; reflexivity). rewrite A2.
    assert (br_next br 93 = false) as A3 by reflexivity. rewrite A3. apply IH. }
  destruct ((c =? 58) && negb br); [reflexivity|].
  unfold h_end. destruct ((c =? 47) || (c =? 63) || (c =? 35)); cbn [orb]; [reflexivity|].
  destruct (sp && (c =? 92)); [reflexivity|].
  unfold br_next. rewrite E91, E93. apply IH.
Qed.

(* Url::set_host_internal, evaluated *)
Section Eval.
Variable dbg : bool.
Variable host_display : host -> list N.

Lemma set_host_internal_eval u h : wf_b u = true ->
  (has_authority_b u = false -> path_start u = scheme_end u + 1) ->
  set_host_internal dbg host_display u h None
  = Some (if has_authority_b u then with_host_auth u (hi_of_host h) (host_display h)
          else with_host_noauth u (hi_of_host h) (host_display h)).
Proof.
  intros W Hx2. unfold set_host_internal.
  destruct (wf_scheme_facts u W) as (Hse & Hc & Hlt).
  assert (exists u', (suffix <- u_slice_from u (host_end u);;
     (let s0 := truncate (ser u) (host_start u) in
      ha <- has_authority dbg (set_ser u s0);;
      ' (s1, ue, hs) <-
      (if negb ha
       then
        (if dbg
         then
          x <- slice_o s0 (scheme_end u) (host_start u);;
          assert_o (list_eqb x [58]);;; assert_o (username_end u =? host_start u)
         else Some tt);;; Some (s0 ++ [47; 47], username_end u + 2, host_start u + 2)
       else Some (s0, username_end u, host_start u));;
      (let s2 := s1 ++ host_display h in
       let he := nlen s2 in
       let
       '(s3, port') := (s2, port u) in
        let new_suffix_pos := nlen s3 in
        ps <- adjust dbg (path_start u) (host_end u) new_suffix_pos;;
        qs <- adjust_opt dbg (query_start u) (host_end u) new_suffix_pos;;
        fs <- adjust_opt dbg (fragment_start u) (host_end u) new_suffix_pos;;
        Some
          {|
            ser := s3 ++ suffix;
            scheme_end := scheme_end u;
            username_end := ue;
            host_start := hs;
            host_end := he;
            hosti := hi_of_host h;
            port := port';
            path_start := ps;
            query_start := qs;
            fragment_start := fs
          |}))) = Some u'
     /\ u' = (if has_authority_b u then with_host_auth u (hi_of_host h) (host_display h)
              else with_host_noauth u (hi_of_host h) (host_display h))) as (u' & E & ->); [|exact E].
  destruct (has_authority_b u) eqn:Ha.
  all: try (pose proof (wf_auth_facts u W Ha) as F;
            pose proof (af_ue F); pose proof (af_hs F); pose proof (af_he F); pose proof (af_ps F); pose proof (af_len F)).
  all: try (pose proof (wf_noauth_facts u W Ha) as F; pose proof (nf_ue F) as Eue; pose proof (nf_hs F) as Ehs;
            pose proof (nf_he F) as Ehe; pose proof (nf_len F); pose proof (nf_port F) as Eport; pose proof (Hx2 eq_refl) as Hnm).
  all: destruct (wf_tail_offsets_ge u (path_start u) W ltac:(lia)) as [Gq Gf].
  all: unfold u_slice_from; rewrite slice_from_o_some by lia; cbn [bindo];
       rewrite (has_authority_trunc dbg u W); cbn [bindo]; rewrite Ha; cbn [negb].
  - shi_auth dbg host_display u h. reflexivity.
  - shi_noauth dbg host_display u h Ehs Eue Ehe Hc Eport. reflexivity.
Qed.

End Eval.

(* the new record has an authority and is tight *)
Lemma wha_tight u hi d : wf_b u = true -> has_authority_b u = true ->
  ((hi_some hi = false /\ d = [] /\ port u = None)
   \/ (hi_some hi = true /\ exists c r, d = c :: r /\ c <> 58 /\ c <> 64)) ->
  tight u -> tight (with_host_auth u hi d).
Proof.
  intros W Ha Hd T. destruct (wha_bounds u hi d W Ha) as (B1 & B2 & B3 & B4 & B5).
  unfold tight. change (username_end (with_host_auth u hi d)) with (username_end u).
  change (scheme_end (with_host_auth u hi d)) with (scheme_end u). intros Heq.
  destruct (N.eq_dec (username_end u) (host_start u)) as [Eh|Nh].
  - (* no userinfo: the byte is the first byte of the new host text, or of what follows it *)
    rewrite Eh.
    assert (nlen (nfirstn (host_start u) (ser u)) = host_start u) as La by (apply nlen_nfirstn; lia).
    destruct Hd as [(Ehi & Ed & Ep)|(Ehi & c & r & Ed & C1 & C2)].
    + pose proof W as W0. apply wf_b_iff in W0. rewrite Ha in W0.
      destruct W0 as (_ & ((_ & _ & _ & _ & _ & _ & _ & P) & PS) & _).
      unfold port_ok in P. rewrite Ep in P.
      replace (host_start u) with (shift (host_end u) (host_start u + nlen d) (host_end u)) at 1
        by (unfold shift; rewrite Ed, nlen_nil; lia).
      rewrite (wha_byte_hi u hi d W Ha) by lia. rewrite <- P.
      destruct PS as [PS|[PS|[PS|PS]]].
      * apply byte_eqb_false_of. intros X. apply nnth_lt in X. lia.
      * apply (byte_eqb_excl _ _ 47 64); [lia | exact PS].
      * apply (byte_eqb_excl _ _ 63 64); [lia | exact PS].
      * apply (byte_eqb_excl _ _ 35 64); [lia | exact PS].
    + unfold byte_eqb. rewrite (wha_ser u hi d), Ed. rewrite nnth_app_ge by lia. rewrite La, N.sub_diag. cbn.
      apply N.eqb_neq. exact C2.
  - rewrite (pre_byte_eqb (host_start u) (ser u)); [exact (T Heq) | exact (wha_pre u hi d W Ha) | lia].
Qed.

Lemma whn_tight u hi d : wf_b u = true -> has_authority_b u = false ->
  path_start u = scheme_end u + 1 -> byte_eqb (ser u) (scheme_end u + 1) 47 = true ->
  ((hi_some hi = false /\ d = [])
   \/ (hi_some hi = true /\ exists c r, d = c :: r /\ c <> 58 /\ c <> 64)) ->
  tight (with_host_noauth u hi d).
Proof.
  intros W Ha Hnm Hsl Hd. unfold tight.
  change (username_end (with_host_noauth u hi d)) with (scheme_end u + 3). intros _.
  apply (whn_byte_at_hs u hi d W Hnm Hsl Hd 64). right. reflexivity.
Qed.
