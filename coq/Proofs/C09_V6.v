(* Proofs/C09_V6.v - IPv6: hex print/parse inverse (by induction on the digits), the parser's main
   loop on rendered pieces, fuel irrelevance, longest_zero_sequence as a function of the zero pattern. *)
From RU Require Import Base.Prelude Model.HostT Model.Host.

(* ------------------------------------------------------------------ hex4 *)

Fixpoint hex_fold (h : list N) (acc : N) : option N :=
  match h with
  | [] => Some acc
  | c :: r => match hex_val c with Some d => hex_fold r (acc * 16 + d) | None => None end
  end.

Definition is_lower_hex (c : N) : bool := is_digit c || ((97 <=? c) && (c <=? 102)).

Definition no_leading_zero (v : N) (h : list N) : bool :=
  match h with
  | [] => false
  | c :: r => if c =? 48 then (v =? 0) && (match r with [] => true | _ => false end) else true
  end.

(* hex4 writes the base-16 digits of v, most significant first: the last one is v mod 16, in front of it stand
   those of v / 16 *)
Lemma hex4_small v : v < 16 -> hex4 v = [hex_lower v].
Proof. intros H. unfold hex4. replace (v <? 16) with true by lia. reflexivity. Qed.

Lemma hex4_step v : 16 <= v -> v < 65536 -> hex4 v = hex4 (v / 16) ++ [hex_lower (v mod 16)].
Proof.
  intros L U. unfold hex4. rewrite !N.div_div by lia. change (16 * 16) with 256. change (16 * 256) with 4096.
  replace (v <? 16) with false by lia.
  destruct (v <? 256) eqn:E1; [replace (v / 16 <? 16) with true by lia; reflexivity|].
  replace (v / 16 <? 16) with false by lia.
  destruct (v <? 4096) eqn:E2; [replace (v / 16 <? 256) with true by lia; reflexivity|].
  replace (v / 16 <? 256) with false by lia. replace (v / 16 <? 4096) with true by lia. reflexivity.
Qed.

Lemma hex4_ind (P : N -> list N -> Prop) :
  (forall d, d < 16 -> P d [hex_lower d]) ->
  (forall v h, 16 <= v -> P (v / 16) h -> P v (h ++ [hex_lower (v mod 16)])) ->
  forall v, v < 65536 -> P v (hex4 v).
Proof.
  intros B S v. induction v as [v IH] using (well_founded_induction N.lt_wf_0). intros Hv.
  destruct (N.lt_ge_cases v 16) as [H|H]; [rewrite hex4_small by exact H; exact (B v H)|].
  rewrite hex4_step by assumption. apply S; [exact H|]. apply IH; lia.
Qed.

Lemma lower_hex_lower d : d < 16 -> is_lower_hex (hex_lower d) = true.
Proof. unfold is_lower_hex, is_digit, hex_lower. destruct (d <? 10) eqn:E; lia. Qed.

Lemma hex_fold_app h r : forall acc,
  hex_fold (h ++ r) acc = match hex_fold h acc with Some x => hex_fold r x | None => None end.
Proof.
  induction h as [|c h IH]; intros acc; cbn [app hex_fold]; [reflexivity|]. destruct (hex_val c); [apply IH | reflexivity].
Qed.

Lemma hex4_lower v : v < 65536 -> forallb is_lower_hex (hex4 v) = true.
Proof.
  apply (hex4_ind (fun _ h => forallb is_lower_hex h = true)).
  - intros d Hd. cbn [forallb]. rewrite (lower_hex_lower d Hd). reflexivity.
  - intros w h _ IH. rewrite forallb_app, IH. cbn [forallb]. rewrite lower_hex_lower by lia. reflexivity.
Qed.

Lemma hex4_value v : v < 65536 -> hex_fold (hex4 v) 0 = Some v.
Proof.
  apply (hex4_ind (fun v h => hex_fold h 0 = Some v)).
  - intros d Hd. cbn [hex_fold]. rewrite (hex_val_lower d Hd). reflexivity.
  - intros w h _ IH. rewrite hex_fold_app, IH. cbn [hex_fold]. rewrite hex_val_lower by lia. f_equal. lia.
Qed.

(* the first digit is 0 only in "0" *)
Lemma hex4_first v : v < 65536 -> exists c r, hex4 v = c :: r /\ (c = 48 -> v = 0).
Proof.
  apply (hex4_ind (fun v h => exists c r, h = c :: r /\ (c = 48 -> v = 0))).
  - intros d Hd. exists (hex_lower d), []. split; [reflexivity|]. unfold hex_lower. destruct (d <? 10) eqn:E; lia.
  - intros w h Hw (c & r & -> & Hc). exists c, (r ++ [hex_lower (w mod 16)]). split; [reflexivity|]. lia.
Qed.

Lemma hex4_len v : (1 <= length (hex4 v) <= 4)%nat.
Proof. unfold hex4. destruct (v <? 16), (v <? 256), (v <? 4096); cbn [length]; lia. Qed.

Lemma hex4_facts v : v < 65536 ->
  forallb is_lower_hex (hex4 v) = true /\ (length (hex4 v) <= 4)%nat
  /\ hex_fold (hex4 v) 0 = Some v /\ no_leading_zero v (hex4 v) = true.
Proof.
  intros Hv. split; [exact (hex4_lower v Hv)|]. split; [exact (proj2 (hex4_len v))|]. split; [exact (hex4_value v Hv)|].
  destruct (hex4_first v Hv) as (c & r & E & Hc). rewrite E. cbn [no_leading_zero].
  destruct (c =? 48) eqn:E48; [|reflexivity]. rewrite (Hc ltac:(lia)) in E |- *. inversion E. reflexivity.
Qed.

Lemma hex4_nonnil v : hex4 v <> [].
Proof. pose proof (hex4_len v) as H. destruct (hex4 v); [cbn in H; lia | discriminate]. Qed.

Lemma hex4_app_nonnil v r : hex4 v ++ r <> [].
Proof. pose proof (hex4_nonnil v). destruct (hex4 v); [congruence | discriminate]. Qed.

Lemma lower_hex_val c : is_lower_hex c = true -> exists d, hex_val c = Some d.
Proof.
  unfold is_lower_hex, hex_val. intros H. destruct (is_digit c) eqn:E1; [eauto|].
  cbn [orb] in H. unfold is_digit in E1.
  destruct ((65 <=? c) && (c <=? 70)) eqn:E2; [eauto|]. rewrite H. eauto.
Qed.

Lemma lower_hex_not_sep c : is_lower_hex c = true -> c <> 58 /\ c <> 46.
Proof. unfold is_lower_hex, is_digit. lia. Qed.

Lemma hex4_head v : v < 65536 -> exists c h, hex4 v = c :: h /\ is_lower_hex c = true.
Proof.
  intros Hv. destruct (hex4_facts v Hv) as (H1 & _). pose proof (hex4_nonnil v) as Hn.
  destruct (hex4 v) as [|c h]; [congruence|]. cbn [forallb] in H1. apply andb_true_iff in H1.
  exists c, h. tauto.
Qed.

(* ------------------------------------------------------------------ read_hex *)

Lemma read_hex_len k : forall inp v n v' n' rest,
  read_hex k inp v n = (v', n', rest) -> (length rest <= length inp)%nat.
Proof.
  induction k as [|k IH]; intros inp v n v' n' rest H; cbn [read_hex] in H.
  - inversion H; subst. lia.
  - destruct inp as [|c r]; [inversion H; subst; cbn; lia|].
    destruct (hex_val c) as [d|].
    + apply IH in H. cbn [length]. lia.
    + inversion H; subst. lia.
Qed.

Definition stops (rest : list N) : Prop :=
  match rest with [] => True | c :: _ => hex_val c = None end.

Lemma read_hex_full h : forall k value n rest v',
  (length h <= k)%nat -> stops rest -> hex_fold h value = Some v' ->
  read_hex k (h ++ rest) value n = (v', n + N.of_nat (length h), rest).
Proof.
  induction h as [|c h IH]; intros k value n rest v' Hk Hs Hf.
  - cbn [hex_fold] in Hf. inversion Hf; subst. cbn [app length].
    replace (n + N.of_nat 0) with n by lia.
    destruct k as [|k]; [reflexivity|]. cbn [read_hex].
    destruct rest as [|c r]; [reflexivity|]. cbn in Hs. rewrite Hs. reflexivity.
  - cbn [hex_fold] in Hf. destruct (hex_val c) as [d|] eqn:E; [|discriminate].
    destruct k as [|k]; [cbn in Hk; lia|]. cbn [app read_hex]. rewrite E.
    rewrite (IH k _ _ rest v'); [|cbn in Hk; lia|exact Hs|exact Hf].
    f_equal. f_equal. cbn [length]. lia.
Qed.

Lemma read_hex_hex4 v n rest : v < 65536 -> stops rest ->
  read_hex 4 (hex4 v ++ rest) 0 n = (v, n + N.of_nat (length (hex4 v)), rest).
Proof.
  intros Hv Hs. destruct (hex4_facts v Hv) as (_ & H2 & H3 & _).
  apply read_hex_full; assumption.
Qed.

(* ------------------------------------------------------------------ pieces *)

Lemma upd_nth_length ps : forall i v, length (upd_nth ps i v) = length ps.
Proof. induction ps as [|x r IH]; intros [|i] v; cbn [upd_nth length]; try reflexivity. rewrite IH. reflexivity. Qed.

Lemma set_piece_ok ps i v : i < N.of_nat (length ps) -> set_piece ps i v = Some (upd_nth ps (N.to_nat i) v).
Proof. intros H. unfold set_piece. replace (i <? N.of_nat (length ps)) with true by lia. reflexivity. Qed.

(* ------------------------------------------------------------------ v6_main: unfolding, fuel *)

Lemma v6_main_nil f ps pp cp : v6_main f [] ps pp cp = XOk (V6End ps pp cp).
Proof. destruct f; reflexivity. Qed.

Lemma v6_main_step f c r ps pp cp :
  v6_main (S f) (c :: r) ps pp cp =
  if pp =? 8 then XErr InvalidIpv6Address
  else if c =? 58 then
    match cp with
    | Some _ => XErr InvalidIpv6Address
    | None => v6_main f r ps (pp + 1) (Some (pp + 1))
    end
  else
    let '(value, n, rest) := read_hex 4 (c :: r) 0 0 in
    match rest with
    | [] =>
        match set_piece ps pp value with
        | None => XPanic 401
        | Some ps' => v6_main f [] ps' (pp + 1) cp
        end
    | d :: rest' =>
        if d =? 46 then
          if n =? 0 then XErr InvalidIpv6Address
          else if 6 <? pp then XErr InvalidIpv6Address
          else XOk (V6Ipv4 (c :: r) ps pp cp)
        else if d =? 58 then
          match rest' with
          | [] => XErr InvalidIpv6Address
          | _ =>
              match set_piece ps pp value with
              | None => XPanic 401
              | Some ps' => v6_main f rest' ps' (pp + 1) cp
              end
          end
        else XErr InvalidIpv6Address
    end.
Proof. reflexivity. Qed.

(* the loop is unfolded through v6_main_nil / v6_main_step only *)
Local Opaque v6_main.

Lemma v6_main_fuel f1 : forall f2 inp ps pp cp,
  (length inp <= f1)%nat -> (length inp <= f2)%nat ->
  v6_main f1 inp ps pp cp = v6_main f2 inp ps pp cp.
Proof.
  induction f1 as [|f1 IH]; intros f2 inp ps pp cp H1 H2.
  - destruct inp; [rewrite !v6_main_nil; reflexivity | cbn in H1; lia].
  - destruct inp as [|c r]; [rewrite !v6_main_nil; reflexivity|].
    destruct f2 as [|f2]; [cbn in H2; lia|].
    rewrite !v6_main_step. cbn [length] in H1, H2.
    destruct (pp =? 8); [reflexivity|].
    destruct (c =? 58).
    { destruct cp; [reflexivity|]. apply IH; lia. }
    destruct (read_hex 4 (c :: r) 0 0) as [[value n] rest] eqn:E.
    pose proof (read_hex_len _ _ _ _ _ _ _ E) as HL. cbn [length] in HL.
    destruct rest as [|d rest'].
    { destruct (set_piece ps pp value); [|reflexivity]. rewrite !v6_main_nil. reflexivity. }
    destruct (d =? 46); [reflexivity|].
    destruct (d =? 58); [|reflexivity].
    destruct rest' as [|e rest'']; [reflexivity|].
    destruct (set_piece ps pp value); [|reflexivity].
    cbn [length] in HL. apply IH; cbn [length]; lia.
Qed.

(* the main loop with its canonical fuel *)
Definition v6m (inp : list N) (ps : list N) (pp : N) (cp : option N) : xr v6_exit :=
  v6_main (length inp) inp ps pp cp.

Lemma v6m_nil ps pp cp : v6m [] ps pp cp = XOk (V6End ps pp cp).
Proof. reflexivity. Qed.

Lemma v6m_compress rest ps pp : pp < 8 ->
  v6m (58 :: rest) ps pp None = v6m rest ps (pp + 1) (Some (pp + 1)).
Proof.
  intros Hp. unfold v6m. cbn [length]. rewrite v6_main_step.
  replace (pp =? 8) with false by lia. replace (58 =? 58) with true by reflexivity. reflexivity.
Qed.

Lemma stops_colon r : stops (58 :: r).
Proof. reflexivity. Qed.

Lemma v6m_piece_colon v rest ps pp cp :
  v < 65536 -> rest <> [] -> pp < 8 -> length ps = 8%nat ->
  v6m (hex4 v ++ 58 :: rest) ps pp cp = v6m rest (upd_nth ps (N.to_nat pp) v) (pp + 1) cp.
Proof.
  intros Hv Hr Hp Hl. unfold v6m.
  destruct (hex4_head v Hv) as (c & h & Eh & Hc).
  destruct (lower_hex_not_sep c Hc) as [Hc1 _].
  pose proof (read_hex_hex4 v 0 (58 :: rest) Hv (stops_colon rest)) as RH.
  rewrite Eh in *. cbn [app length] in *. rewrite v6_main_step.
  replace (pp =? 8) with false by lia. replace (c =? 58) with false by lia.
  rewrite RH.
  replace (58 =? 46) with false by reflexivity. replace (58 =? 58) with true by reflexivity.
  destruct rest as [|e rest']; [congruence|].
  rewrite set_piece_ok by (rewrite Hl; lia).
  apply v6_main_fuel; [|lia]. rewrite app_length. cbn [length]. lia.
Qed.

Lemma v6m_piece_last v ps pp cp :
  v < 65536 -> pp < 8 -> length ps = 8%nat ->
  v6m (hex4 v) ps pp cp = XOk (V6End (upd_nth ps (N.to_nat pp) v) (pp + 1) cp).
Proof.
  intros Hv Hp Hl. unfold v6m.
  destruct (hex4_head v Hv) as (c & h & Eh & Hc).
  destruct (lower_hex_not_sep c Hc) as [Hc1 _].
  pose proof (read_hex_hex4 v 0 [] Hv I) as RH. rewrite app_nil_r in RH.
  rewrite Eh in *. cbn [length]. rewrite v6_main_step.
  replace (pp =? 8) with false by lia. replace (c =? 58) with false by lia.
  rewrite RH. rewrite set_piece_ok by (rewrite Hl; lia). rewrite v6_main_nil. reflexivity.
Qed.

(* ------------------------------------------------------------------ parse_ipv6addr: the two starts *)

Lemma parse_ipv6addr_cc r : parse_ipv6addr (58 :: 58 :: r) = xr_bind (v6m r v6_zero 1 (Some 1)) v6_tail.
Proof. reflexivity. Qed.

Lemma parse_ipv6addr_piece v rest : v < 65536 ->
  parse_ipv6addr (hex4 v ++ 58 :: rest) = xr_bind (v6m (hex4 v ++ 58 :: rest) v6_zero 0 None) v6_tail.
Proof.
  intros Hv. destruct (hex4_head v Hv) as (c & h & Eh & Hc).
  destruct (lower_hex_not_sep c Hc) as [Hc1 _]. rewrite Eh. unfold v6m.
  destruct h as [|c' h']; cbn [app]; unfold parse_ipv6addr; replace (c =? 58) with false by lia; reflexivity.
Qed.

(* ------------------------------------------------------------------ longest_zero_sequence depends on the zero pattern only *)

Definition nz (x : N) : N := if x =? 0 then 0 else 1.

Lemma lzs_loop_nz ps : forall i st, lzs_loop (map nz ps) i st = lzs_loop ps i st.
Proof.
  induction ps as [|p r IH]; intros i st; cbn [map lzs_loop]; [reflexivity|].
  destruct st as [[l ll] s].
  replace (nz p =? 0) with (p =? 0) by (unfold nz; destruct (p =? 0) eqn:E; lia).
  destruct (p =? 0); [apply IH|]. destruct (lzs_finish i (l, ll, s)) as [[l2 ll2] s2]. apply IH.
Qed.

Lemma lzs_nz ps : longest_zero_sequence (map nz ps) = longest_zero_sequence ps.
Proof. unfold longest_zero_sequence. rewrite lzs_loop_nz. reflexivity. Qed.

(* the eight-bit pattern number k <-> list *)
Definition bit (k i : N) : N := if N.testbit k i then 1 else 0.
Definition pat (k : N) : list N := [bit k 7; bit k 6; bit k 5; bit k 4; bit k 3; bit k 2; bit k 1; bit k 0].

Lemma nz_pat a0 a1 a2 a3 a4 a5 a6 a7 :
  exists k, k < 256 /\ map nz [a0; a1; a2; a3; a4; a5; a6; a7] = pat k.
Proof.
  exists (128 * nz a0 + 64 * nz a1 + 32 * nz a2 + 16 * nz a3 + 8 * nz a4 + 4 * nz a5 + 2 * nz a6 + nz a7).
  unfold nz. cbn [map].
  destruct (a0 =? 0), (a1 =? 0), (a2 =? 0), (a3 =? 0), (a4 =? 0), (a5 =? 0), (a6 =? 0), (a7 =? 0);
    (split; [vm_compute; reflexivity | vm_compute; reflexivity]).
Qed.

Lemma length8 (a : list N) : length a = 8%nat ->
  exists a0 a1 a2 a3 a4 a5 a6 a7, a = [a0; a1; a2; a3; a4; a5; a6; a7].
Proof.
  intros H. do 8 (destruct a as [|? a]; [discriminate|]). destruct a; [|discriminate].
  repeat eexists.
Qed.

