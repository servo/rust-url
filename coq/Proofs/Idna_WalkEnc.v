(* Proofs/Idna_WalkEnc.v - the unreachable!() behind the internal Punycode encoder (uts46.rs:445) cannot be reached:
   every label of domain_buffer that the marking run of process_inner leaves is a list of Unicode scalar values and is
   ASCII, or marked with U+FFFD, or at most 1000 scalar values long (the cap of check_label, uts46.rs 1607-1616), so
   internal_main of Proofs/C13_Main.v (the lemma behind C13_internal of Properties/C13.v) applies to every label an output
   walk encodes (EncOKInner of Proofs/Idna_WalkNoPanic.v).  At the end of the file: the entry-point theorem
   uts46_no_panic, the adapter toy_s used by Properties/C04.v, and the adapter lowid, which meets AdapterOK and panics at
   site 1650 of is_bidi.
   Adapter premise: AdapterUSV - the two normalizer functions return Unicode scalar values (true by type: they yield
   Rust `char`s; the model's code points are plain N). *)
From RU Require Import Base.Prelude Base.Utf8 Base.U32_c13 Gen.Tables Model.Punycode Model.Uts46
  Proofs.C13_Main
  Proofs.Idna_Sim Proofs.Idna_Api Proofs.Idna_Known Proofs.Idna_Hyp Proofs.Idna_Redisc
  Proofs.Idna_C10_Deny Proofs.Idna_C10_Prefix Proofs.Idna_C10_Inner Proofs.Idna_C10_Walk
  Proofs.Idna_Mark Proofs.Idna_MarkWalk Proofs.Idna_MarkFffd Proofs.Idna_WalkFun Proofs.Idna_WalkInv Proofs.Idna_WalkApi
  Proofs.Idna_WalkNoPanic.

Record AdapterUSV (A : adapter) : Prop := {
  usv_map : forall l, usv_list (map_normalize A l);
  usv_norm : forall l, usv_list (normalize_validate A l) }.

(* capped: ASCII, or marked, or within the encoder's input cap; capQ: scalar values and capped; asciiF: ASCII or U+FFFD *)
Definition capped (l : list N) : Prop := is_ascii_l l = true \/ fffd l = true \/ len l <= PUNYCODE_ENCODE_MAX_INPUT_LENGTH.
Definition capQ (l : list N) : Prop := usv_list l /\ capped l.
Definition asciiF (l : list N) : Prop := Forall (fun c => c < 128 \/ c = FFFD) l.

Lemma usv_fffd : is_usv FFFD.
Proof. unfold is_usv, FFFD, REPLACEMENT. lia. Qed.
Lemma marked_usv l l' : marked l l' -> usv_list l -> usv_list l'.
Proof.
  intros H. induction H as [|x y a b Hxy _ IH]; intros Hu; [constructor|]. inversion Hu as [|? ? Hx Ha]; subst.
  constructor; [destruct Hxy as [-> | ->]; [exact Hx|exact usv_fffd]|exact (IH Ha)].
Qed.
Lemma marked_eq_or_fffd l l' : marked l l' -> l' = l \/ fffd l' = true.
Proof.
  intros H. induction H as [|x y a b Hxy _ IH]; [left; reflexivity|].
  destruct Hxy as [-> | ->]; [|right; reflexivity].
  destruct IH as [-> |IH]; [left; reflexivity|right]. unfold fffd in *. cbn [existsb]. rewrite IH. apply orb_true_r.
Qed.
Lemma marked_capped l l' : marked l l' -> capped l -> capped l'.
Proof.
  intros HM [H|[H|H]].
  - destruct (marked_eq_or_fffd _ _ HM) as [-> |Hf]; [left; exact H|right; left; exact Hf].
  - right; left. exact (marked_fffd _ _ H HM).
  - right; right. unfold len in *. rewrite (marked_length _ _ HM). exact H.
Qed.
Lemma marked_capQ l l' : marked l l' -> capQ l -> capQ l'.
Proof. intros HM [H1 H2]. split; [exact (marked_usv _ _ HM H1)|exact (marked_capped _ _ HM H2)]. Qed.
Lemma marked_asciiF l l' : marked l l' -> asciiF l -> asciiF l'.
Proof.
  intros H. induction H as [|x y a b Hxy _ IH]; intros Hu; [constructor|]. inversion Hu as [|? ? Hx Ha]; subst.
  constructor; [destruct Hxy as [-> | ->]; [exact Hx|right; reflexivity]|exact (IH Ha)].
Qed.
Lemma asciiF_nonascii_fffd q : asciiF q -> is_ascii_l q = false -> fffd q = true.
Proof.
  unfold fffd. induction 1 as [|y q Hy _ IHq]; intros E; [discriminate|]. cbn [is_ascii_l forallb existsb] in *.
  destruct Hy as [Hy| ->]; [|reflexivity]. fold (is_ascii_l q) in E.
  replace (is_ascii_cp y) with true in E by (unfold is_ascii_cp; lia). cbn [andb] in E. rewrite (IHq E). apply orb_true_r.
Qed.
Lemma asciiF_capQ l : asciiF l -> capQ l.
Proof.
  intros H. split.
  - eapply Forall_impl; [|exact H]. intros a [Ha| ->]; [unfold is_usv; lia|exact usv_fffd].
  - destruct (is_ascii_l l) eqn:Ea; [left; exact Ea|right; left; exact (asciiF_nonascii_fffd l H Ea)].
Qed.
Lemma upper_asciiF deny l : Forall (fun b => b < 128) l -> asciiF (map (apply_upper deny) l).
Proof.
  intros H. apply Forall_forall. intros x Hx. apply in_map_iff in Hx. destruct Hx as (b & <- & Hb).
  rewrite Forall_forall in H. destruct (N.eq_dec (apply_upper deny b) FFFD) as [E|E]; [right; exact E|left].
  exact (apply_upper_ascii deny b (H b Hb) E).
Qed.
Lemma lower_usv dd l : usv_list l -> usv_list (map (apply_lower dd) l).
Proof.
  intros H. apply Forall_forall. intros x Hx. apply in_map_iff in Hx. destruct Hx as (c & <- & Hc).
  unfold usv_list in H. rewrite Forall_forall in H. specialize (H c Hc). unfold apply_lower.
  destruct (c <? 128); [|exact H]. destruct (N.land dd (N.shiftl 1 c) =? 0); [exact H|exact usv_fffd].
Qed.
Lemma split_ascii_prefix label a n : split_ascii_fast_path_prefix label = (a, n) -> Forall (fun b => b < 128) a.
Proof.
  unfold split_ascii_fast_path_prefix. destruct (position (fun b => negb (is_ascii_cp b)) label) as [[|q]|] eqn:E; intros H; inversion H; subst.
  - constructor.
  - assert (Hq : Forall (fun b => negb (is_ascii_cp b) = false) (firstn (Datatypes.S q) label)) by exact (position_some _ _ _ E).
    assert (Hsub : forall x, In x (firstn q label) -> In x (firstn (Datatypes.S q) label)).
    { clear. revert q. induction label as [|y r IH]; intros q x Hx; [destruct q; destruct Hx|].
      destruct q; [destruct Hx|]. cbn [firstn] in *. destruct Hx as [->|Hx]; [left; reflexivity|right; exact (IH q x Hx)]. }
    apply Forall_forall. intros x Hx. rewrite Forall_forall in Hq. specialize (Hq x (Hsub x Hx)). unfold is_ascii_cp in Hq. lia.
  - apply position_none in E. eapply Forall_impl; [|exact E]. cbv beta. unfold is_ascii_cp. intros b Hb. lia.
Qed.

Lemma SOk_pair_inj (a c : list N) (b e : bool) : @SOk (list N * bool) (a, b) = SOk (c, e) -> a = c /\ b = e.
Proof. intros H. inversion H. split; reflexivity. Qed.

Lemma SOk_triple_inj (a c : list N) (b e b2 e2 : bool) : @SOk (list N * bool * bool) (a, b, b2) = SOk (c, e, e2) -> a = c.
Proof. intros H. inversion H. reflexivity. Qed.

Section Enc.
Variable A : adapter.
Variable cfg : bool.
Hypothesis HU : AdapterUSV A.

Lemma check_label_capped hy lab he fcm ncj l' he' :
  check_label A cfg false hy lab he fcm ncj = SOk (l', he') -> capped l'.
Proof.
  unfold check_label. intros H.
  apply sbind_ok in H. destruct H as ([l1 h1] & _ & H). apply sbind_ok in H. destruct H as ([l2 h2] & _ & H).
  apply sbind_ok in H. destruct H as ([l3 h3] & _ & H).
  destruct (negb (is_ascii_l l3) && (PUNYCODE_ENCODE_MAX_INPUT_LENGTH <? len l3)) eqn:E.
  - destruct (len l3 <=? PUNYCODE_ENCODE_MAX_INPUT_LENGTH) eqn:E2; [discriminate|]. apply SOk_pair_inj in H. destruct H as [<- _].
    right; left. apply fffd_set_nth. unfold len in E2. lia.
  - apply SOk_pair_inj in H. destruct H as [<- _]. apply andb_false_iff in E. destruct E as [E|E].
    + left. apply negb_false_iff in E. exact E.
    + right; right. lia.
Qed.
Lemma check_label_capQ hy lab he fcm ncj l' he' : usv_list lab ->
  check_label A cfg false hy lab he fcm ncj = SOk (l', he') -> capQ l'.
Proof.
  intros Hu H. split; [|exact (check_label_capped _ _ _ _ _ _ _ H)].
  pose proof (check_label_MK A cfg hy lab he fcm ncj) as HM. rewrite H in HM. exact (marked_usv _ _ (proj1 HM) Hu).
Qed.

Lemma apd_usv dd lb he l' he' : after_punycode_decode A false dd lb he = SOk (l', he') -> usv_list l'.
Proof.
  unfold after_punycode_decode. rewrite scan_mark_fffd_id. cbn [sbind].
  pose proof (lower_usv dd _ (usv_norm A HU lb)) as HX.
  destruct (zip_mark (map (apply_lower dd) (normalize_validate A lb)) lb) as [m|] eqn:Ez; intros H; inversion H; subst.
  - exact (marked_usv _ _ (proj1 (zip_mark_some _ _ _ Ez)) HX).
  - exact HX.
Qed.

Lemma usv_split4 cur : usv_list cur -> usv_list (firstn 4 cur) /\ usv_list (skipn 4 cur).
Proof. intros H. rewrite <- (firstn_skipn 4 cur) in H. apply Forall_app in H. exact H. Qed.

Lemma end_sublabel_capQ hy dd cur he fcm ncj l' he' : usv_list cur ->
  end_sublabel A cfg false hy dd cur he fcm ncj = SOk (l', he') -> capQ l'.
Proof.
  intros Hu. unfold end_sublabel. destruct (starts_with cur XN_PREFIX); [|apply check_label_capQ; exact Hu].
  cbv zeta. intros H. apply sbind_ok in H. destruct H as ([t h1] & H1 & H).
  destruct (usv_split4 cur Hu) as [Hu4 Hus].
  assert (Hut : usv_list t).
  { pose proof (scan_mark_MK (fun c => negb (is_ascii_cp c)) (skipn 4 cur) he) as HM. rewrite H1 in HM. exact (marked_usv _ _ (proj1 HM) Hus). }
  assert (Hu1 : usv_list (firstn 4 cur ++ t)) by (apply Forall_app; split; assumption).
  destruct (last_opt (firstn 4 cur ++ t)) as [lst|]; [|discriminate].
  apply sbind_ok in H. destruct H as ([[c2 h2] p2] & H2 & H).
  assert (Hu2 : usv_list c2).
  { destruct (lst =? HYPHEN); apply SOk_triple_inj in H2; rewrite <- H2; [exact (marked_usv _ _ (marked_set_last _) Hu1)|exact Hu1]. }
  apply sbind_ok in H. destruct H as ([[c3 h3] p3] & H3 & H).
  assert (Hu3 : usv_list c3).
  { destruct (PUNYCODE_DECODE_MAX_INPUT_LENGTH <? len c2 - 4); apply SOk_triple_inj in H3; rewrite <- H3; [exact (marked_usv _ _ (marked_set_nth _ _) Hu2)|exact Hu2]. }
  destruct (negb p3).
  - destruct (decode_with cfg CharInternal (skipn 4 c3)) as [decoded| |s]; [| |discriminate].
    + apply sbind_ok in H. destruct H as ([c4 h4] & H4 & H). exact (check_label_capQ _ _ _ _ _ _ _ (apd_usv _ _ _ _ _ H4) H).
    + exact (check_label_capQ _ _ _ _ _ _ _ (marked_usv _ _ (marked_set_nth _ _) Hu3) H).
  - exact (check_label_capQ _ _ _ _ _ _ _ Hu3 H).
Qed.

(* LabsOK: domain_buffer grew by at least one dot-free label, each of scalar values and capped *)
Definition LabsOK (db db' : list N) : Prop :=
  exists labs, db' = db ++ join_dots labs /\ labs <> [] /\ Forall nodot labs /\ Forall capQ labs.

Lemma sublabels_cap hy deny rest : forall s db cur he ap fcm ncj db' he' ap',
  usv_list cur -> usv_list s -> Forall usv_list rest -> nodot cur -> nodot s -> Forall nodot rest ->
  sublabels A cfg false hy (N.lor deny DOT_MASK) s rest db cur he ap fcm ncj = SOk (db', he', ap') -> LabsOK db db'.
Proof.
  induction rest as [|s2 rest IH]; intros s db cur he ap fcm ncj db' he' ap' Huc Hus Hur Hnc Hns Hnr H;
    cbn [sublabels] in H; rewrite scan_mark_fffd_id in H; cbn [sbind] in H;
    apply sbind_ok in H; destruct H as ([lab h2] & H2 & H);
    pose proof (end_sublabel_capQ _ _ _ _ _ _ _ _ (proj2 (Forall_app _ _ _) (conj Huc Hus)) H2) as Hq;
    pose proof (end_sublabel_RP A cfg hy deny (cur ++ s) (he || existsb is_fffd s) fcm ncj) as HR; rewrite H2 in HR;
    destruct HR as (R1 & _); specialize (R1 (proj2 (nodot_app cur s) (conj Hnc Hns))).
  - inversion H. subst. exists [lab]. repeat split; [discriminate|constructor; [exact R1|constructor]|constructor; [exact Hq|constructor]].
  - destruct (IH s2 (db ++ lab ++ [DOT]) [] h2 (ap ++ [AalOther]) true true db' he' ap' ltac:(constructor)
                (Forall_inv Hur) (Forall_inv_tail Hur) ltac:(constructor) (Forall_inv Hnr) (Forall_inv_tail Hnr) H)
      as (labs & Hdb & Hne & Hnl & Hcl).
    exists (lab :: labs). split; [|split; [discriminate|split; constructor; assumption]].
    rewrite Hdb. destruct labs as [|x r]; [congruence|]. rewrite join_dots_cons2, <- !app_assoc. reflexivity.
Qed.

Lemma label_nonempty_cap hy deny label db he ap db' he' ap' : nodot label ->
  label_nonempty A cfg false hy deny label db he ap = SOk (db', he', ap') -> LabsOK db db'.
Proof.
  intros Hn. rewrite label_nonempty_eq. destruct (split_ascii_fast_path_prefix label) as [asc non_ascii] eqn:Es.
  pose proof (split_ascii_prefix _ _ _ Es) as Ha.
  assert (Hna : nodot asc).
  { rewrite (split_ascii_app _ _ _ Es) in Hn. exact (proj1 (proj1 (nodot_app _ _) Hn)). }
  pose proof (upper_asciiF deny asc Ha) as HaF. pose proof (map_upper_nodot deny asc Hna) as Hnu.
  assert (HF : forall na, complexF A cfg false hy deny db he ap asc na = SOk (db', he', ap') -> LabsOK db db').
  { intros na H. unfold complexF in H. rewrite scan_mark_fffd_id in H. cbn [sbind] in H.
    destruct (split1 DOT (map (apply_lower deny) (map_normalize A (utf8_lossy na)))) as [s rest] eqn:Esp.
    destruct (split1_nodot _ _ _ Esp) as [Hs Hr].
    destruct (split1_Forall is_usv DOT _ _ _ (lower_usv deny _ (usv_map A HU (utf8_lossy na))) Esp) as [Hus Hur].
    exact (sublabels_cap hy deny rest s db _ _ _ _ _ _ _ _ (proj1 (asciiF_capQ _ HaF)) Hus Hur Hnu Hs Hr H). }
  intros H. destruct non_ascii as [|na nr]; [|exact (HF _ H)].
  destruct (has_punycode_prefix asc).
  - destruct (negb match last_opt asc with Some l => l =? HYPHEN | None => false end
              && (len asc - 4 <=? PUNYCODE_DECODE_MAX_INPUT_LENGTH)); [|exact (HF _ H)].
    destruct (decode_with cfg U8Internal (skipn 4 asc)) as [decoded| |s]; [| |discriminate].
    + apply sbind_ok in H. destruct H as ([c1 h1] & H1 & H). apply sbind_ok in H. destruct H as ([c2 h2] & H2 & H).
      inversion H. subst. pose proof (apd_mark A deny decoded he) as HA. rewrite H1 in HA. destruct HA as [Hn1 _].
      pose proof (check_label_MK A cfg hy c1 h1 true true) as HM. rewrite H2 in HM.
      exists [c2]. repeat split; [discriminate|constructor; [exact (marked_nodot _ _ Hn1 (proj1 HM))|constructor]|].
      constructor; [exact (check_label_capQ _ _ _ _ _ _ _ (apd_usv _ _ _ _ _ H1) H2)|constructor].
    + inversion H. subst. exists [FFFD :: map (apply_upper deny) (tl asc)]. repeat split; [discriminate| |].
      * constructor; [|constructor]. constructor; [exact FFFD_not_dot|]. apply map_upper_nodot.
        destruct asc; [constructor|]. inversion Hna; assumption.
      * constructor; [|constructor]. apply asciiF_capQ. constructor; [right; reflexivity|]. apply upper_asciiF.
        destruct asc; [constructor|]. inversion Ha; assumption.
  - unfold complexT in H. rewrite scan_mark_fffd_id in H. cbn [sbind] in H.
    apply sbind_ok in H. destruct H as ([c2 h2] & H2 & H). inversion H. subst.
    assert (HM : marked (map (apply_upper deny) asc) c2).
    { destruct (negb (hy_is_allow hy)); [|inversion H2; apply marked_refl].
      pose proof (check_hyphens_MK (hy_is_cfl hy) (map (apply_upper deny) asc) (he || existsb is_fffd (map (apply_upper deny) asc))) as HM.
      rewrite H2 in HM. exact (proj1 HM). }
    exists [c2]. repeat split; [discriminate|constructor; [exact (marked_nodot _ _ Hnu HM)|constructor]|].
    constructor; [exact (asciiF_capQ _ (marked_asciiF _ _ HM HaF))|constructor].
Qed.

(* CInv: the loop invariant for the cap: after the passed-through prefix, domain_buffer is dot-free labels joined by
   dots, each of scalar values and capped *)
Definition CInv (s : ist) : Prop :=
  if i_inpre s then i_db s = []
  else i_seen s = true /\ exists dbl, dbl <> [] /\ i_db s = join_dots dbl /\ Forall nodot dbl /\ Forall capQ dbl.

Lemma nil_capQ : capQ [].
Proof. split; [constructor|left; reflexivity]. Qed.

Lemma label_step_CInv hy deny label s s' : nodot label -> CInv s ->
  label_step A cfg false hy deny label s = SOk s' -> CInv s'.
Proof.
  intros Hn HC H. unfold label_step in H. destruct (i_inpre s && is_passthrough_ascii_label label) eqn:Ec.
  - apply andb_true_iff in Ec. destruct Ec as [Ep _]. inversion H. subst s'. unfold CInv in *. cbn [i_inpre i_db]. rewrite Ep in HC. exact HC.
  - unfold CInv in HC. destruct (i_inpre s) eqn:Ep.
    + rewrite andb_false_r in H. rewrite HC in H. destruct label as [|b r]; [cbn in Ec; discriminate|].
      apply sbind_ok in H. destruct H as ([[db1 he1] ap1] & H1 & H). inversion H. subst s'.
      destruct (label_nonempty_cap _ _ _ _ _ _ _ _ _ Hn H1) as (labs & Hdb & Hne & Hnl & Hcl).
      unfold CInv. cbn [i_inpre i_seen i_db]. split; [reflexivity|]. exists labs. repeat split; assumption.
    + destruct HC as (Hs & dbl & Hne & Hdb & Hnd & Hcd). rewrite Hs in H. cbn [andb negb] in H.
      destruct label as [|b r].
      * inversion H. subst s'. unfold CInv. cbn [i_inpre i_seen i_db]. split; [reflexivity|]. exists (dbl ++ [[]]).
        split; [destruct dbl; discriminate|]. split; [rewrite join_dots_app by (try assumption; discriminate); rewrite Hdb; reflexivity|].
        split; [apply Forall_app; split; [exact Hnd|constructor; [constructor|constructor]]|apply Forall_app; split; [exact Hcd|constructor; [exact nil_capQ|constructor]]].
      * apply sbind_ok in H. destruct H as ([[db1 he1] ap1] & H1 & H). inversion H. subst s'.
        destruct (label_nonempty_cap _ _ _ _ _ _ _ _ _ Hn H1) as (labs & Hdb1 & Hne1 & Hnl & Hcl).
        unfold CInv. cbn [i_inpre i_seen i_db]. split; [reflexivity|]. exists (dbl ++ labs).
        split; [destruct dbl; [congruence|discriminate]|]. split; [rewrite join_dots_app by assumption; rewrite Hdb1, Hdb, <- app_assoc; reflexivity|].
        split; apply Forall_app; split; assumption.
Qed.

Lemma labels_loop_CInv hy deny labels : Forall nodot labels -> forall s s', CInv s ->
  labels_loop A cfg false hy deny labels s = SOk s' -> CInv s'.
Proof.
  induction labels as [|l r IH]; intros Hn s s' HC H; cbn [labels_loop] in H; [inversion H; subst; exact HC|].
  apply sbind_ok in H. destruct H as (s1 & H1 & H).
  exact (IH (Forall_inv_tail Hn) s1 s' (label_step_CInv hy deny l s s1 (Forall_inv Hn) HC H1) H).
Qed.

Lemma capQ_enc_ok l : capQ l -> enc_ok cfg l.
Proof.
  intros [Hu [H|[H|H]]]; [left; exact H|right; left; exact H|right; right].
  unfold PUNYCODE_ENCODE_MAX_INPUT_LENGTH in H. change T_IDNA_ENCODE_MAX with 1000 in H.
  destruct (internal_main cfg l Hu ltac:(unfold len in H; lia)) as [E1 E2]. rewrite E2 in E1. eexists. exact E1.
Qed.

Lemma process_innermost_enc hy deny d tail ptu bd he db ap :
  process_innermost A cfg false hy deny d tail = IRes ptu bd he db ap -> Forall (enc_ok cfg) (split_on DOT db).
Proof.
  unfold process_innermost.
  set (s0 := {| i_ptu := len d - len tail; i_seen := false; i_inpre := true; i_db := []; i_he := false; i_ap := [] |}).
  assert (HX : I_EXIT = IRes ptu bd he db ap -> Forall (enc_ok cfg) (split_on DOT db)).
  { intros H. inversion H. subst. constructor; [left; reflexivity|constructor]. }
  destruct (labels_loop A cfg false hy deny (split_on DOT tail) s0) as [s| |p] eqn:El; [|exact HX|discriminate].
  pose proof (labels_loop_CInv hy deny _ (split_on_nodot tail) s0 s eq_refl El) as HC. unfold CInv in HC.
  destruct (i_inpre s).
  - rewrite HC. cbn [is_bidi]. intros H. inversion H. subst. constructor; [left; reflexivity|constructor].
  - destruct HC as (_ & dbl & Hne & Hdb & Hnd & Hcd).
    destruct (is_bidi A cfg (i_db s)) as [[|]| |p]; try discriminate.
    + pose proof (bidi_labels_BLP A (split_on DOT (i_db s)) (i_he s)) as HB.
      destruct (bidi_labels A false (split_on DOT (i_db s)) (i_he s)) as [[ls he2]| |p]; [|exact HX|discriminate].
      intros H. inversion H. subst. cbn [BLP] in HB. destruct HB as [HM _].
      rewrite Hdb, (split_join dbl Hne Hnd) in HM.
      assert (Hls : ls <> []) by (intros ->; inversion HM; subst; congruence).
      rewrite (split_join ls Hls (marked_all_nodot _ _ Hnd HM)).
      clear -HM Hcd. induction HM as [|a b la lb Hab _ IH]; [constructor|]. inversion Hcd; subst.
      constructor; [apply capQ_enc_ok; exact (marked_capQ _ _ Hab ltac:(assumption))|apply IH; assumption].
    + intros H. inversion H. subst. rewrite Hdb, (split_join dbl Hne Hnd).
      eapply Forall_impl; [|exact Hcd]. exact capQ_enc_ok.
Qed.

Theorem enc_ok_inner hy deny d : EncOKInner A cfg hy deny d.
Proof.
  unfold EncOKInner, process_inner. destruct (fast_tier d d) as [tail|].
  - destruct (process_innermost A cfg false hy deny d tail) as [ptu bd he db ap|s] eqn:E; [|exact I].
    exact (process_innermost_enc _ _ _ _ _ _ _ _ _ E).
  - constructor; [left; reflexivity|constructor].
Qed.
End Enc.

Theorem uts46_no_panic A cfg d deny hy dns p : C04_Uts46_Inner.AdapterNP A -> AdapterUSV A -> bytes d ->
  (forall site, to_ascii A cfg d deny hy dns <> Panic site) /\
  (Known_C11 A cfg d deny hy = false -> forall site, to_user_interface A cfg d deny hy p <> UIPanic site).
Proof.
  intros HN HU Hb. split.
  - exact (to_ascii_no_panic A cfg HN d deny hy dns Hb (enc_ok_inner A cfg HU hy deny d)).
  - intros HK. exact (to_ui_no_panic A cfg HN d deny hy p Hb (enc_ok_inner A cfg HU hy deny d) HK).
Qed.

Theorem uts46_process_no_panic A cfg ff p d deny hy w : C04_Uts46_Inner.AdapterNP A -> AdapterUSV A -> bytes d ->
  (ff = false -> Known_C11 A cfg d deny hy = false) ->
  status_fine (fst (fst (process A cfg ff p d deny hy None None w))).
Proof. intros HN HU Hb HK. exact (process_no_panic A cfg HN ff p d deny hy w Hb (enc_ok_inner A cfg HU hy deny d) HK). Qed.

(* a sanitising toy adapter: the toy adapter of Idna_Known with every non-scalar value and U+200F replaced by U+FFFD *)
Definition san (c : N) : N := if is_usvb c && negb (c =? 8207) then c else FFFD.
Definition toy_s : adapter :=
  {| map_normalize := map san; normalize_validate := map san;
     joining_type := fun _ => 0; bidi_class := toy_bc;
     is_mark := fun _ => false; is_virama := fun _ => false |}.
Lemma san_ok c : is_usv (san c) /\ C04_Uts46_Inner.okc (san c).
Proof.
  unfold san. destruct (is_usvb c && negb (c =? 8207)) eqn:E.
  - apply andb_true_iff in E. destruct E as [E1 E2]. apply is_usvb_spec in E1. split; [exact E1|].
    unfold C04_Uts46_Inner.okc, U32_MOD. unfold is_usv in E1. lia.
  - split; [exact usv_fffd|exact C04_Uts46_Inner.okc_fffd].
Qed.
Lemma toy_s_usv : AdapterUSV toy_s.
Proof. split; intros l; cbn [toy_s map_normalize normalize_validate]; apply Forall_forall; intros x Hx; apply in_map_iff in Hx; destruct Hx as (c & <- & _); exact (proj1 (san_ok c)). Qed.
Lemma toy_s_np : C04_Uts46_Inner.AdapterNP toy_s.
Proof. split; intros l; cbn [toy_s map_normalize normalize_validate]; apply Forall_forall; intros x Hx; apply in_map_iff in Hx; destruct Hx as (c & <- & _); exact (proj2 (san_ok c)). Qed.

(* the premise AdapterOK of the statement C04_no_panic_uts46_statement (Properties/C04.v) is NOT enough: the adapter
   that lower-cases ASCII letters and is the identity otherwise meets every field of AdapterOK, and the input U+200F
   fails debug_assert_ne!(c, RLM) in is_bidi (uts46.rs:1650) *)
Definition lowid : adapter :=
  {| map_normalize := map to_lower; normalize_validate := fun l => l;
     joining_type := fun _ => 0; bidi_class := toy_bc;
     is_mark := fun _ => false; is_virama := fun _ => false |}.
Lemma lowid_ok : AdapterOK lowid.
Proof.
  split; cbn [lowid map_normalize normalize_validate].
  - reflexivity.
  - intros l _. reflexivity.
  - intros l l' H. exact H.
  - intros l _ piece _. reflexivity.
  - intros l H1 H2. rewrite H1 in H2. discriminate.
Qed.
Lemma lowid_panics :
  Known_C11 lowid true [226; 128; 143] DENY_EMPTY HAllow = false /\
  to_ascii lowid true [226; 128; 143] DENY_EMPTY HAllow DIgnore = Panic 1650.
Proof. vm_compute. split; reflexivity. Qed.
