(* Proofs/C20_Plain.v - the reference of every plain file name passes through the URL parser unchanged:
   plain_name f -> ref_ok (name_reference f).  With Proofs/C20_Join.dir_join_generic this gives the
   directory-join clause of C20 for the whole class plain_name. *)
From RU Require Import Base.Prelude Base.Utf8 Model.AsciiSet Gen.Tables Model.PercentEncoding
  Model.HostT Model.Parser Model.FilePath
  Proofs.C14_Enc Proofs.C14_Views Proofs.ListN Proofs.C20_Path Proofs.C20_RT Proofs.C20_Join Proofs.C01_EqDots.

(* per-byte facts about SPECIAL_PATH_SEGMENT, by finite sweep over the regenerated table *)
Definition sps_byte_facts (b : N) : bool :=
  (* what the set leaves alone is left alone by every later stage of the parser *)
  implb (negb (should_encode T_SPECIAL_PATH_SEGMENT b))
        (ref_char_ok b && negb (should_encode T_PATH b) && negb (b =? 37))
  (* scheme characters and the drive-letter characters are left alone *)
  && implb (is_alnum b || (b =? 43) || (b =? 45) || (b =? 46) || (b =? 58) || (b =? 124))
           (negb (should_encode T_SPECIAL_PATH_SEGMENT b)).

Lemma sps_byte_sweep : all_below 128 sps_byte_facts = true.
Proof. vm_compute. reflexivity. Qed.

Lemma sps_high b : 128 <= b -> should_encode T_SPECIAL_PATH_SEGMENT b = true.
Proof. intros H. unfold should_encode. replace (128 <=? b) with true by lia. reflexivity. Qed.

Lemma sps_kept_inv b : should_encode T_SPECIAL_PATH_SEGMENT b = false ->
  b < 128 /\ ref_char_ok b = true /\ should_encode T_PATH b = false /\ b <> 37.
Proof.
  intros H. assert (Hlt : b < 128).
  { destruct (N.lt_ge_cases b 128) as [Hl|Hg]; [exact Hl|]. rewrite sps_high in H by exact Hg. discriminate H. }
  pose proof (all_below_spec 128 _ sps_byte_sweep b Hlt) as Hs. unfold sps_byte_facts in Hs.
  apply andb_true_iff in Hs. destruct Hs as [Hs _]. rewrite H in Hs. cbn [negb implb] in Hs.
  apply andb_true_iff in Hs. destruct Hs as [Hs H3]. apply andb_true_iff in Hs. destruct Hs as [H1 H2].
  repeat split; try assumption; try lia.
  destruct (should_encode T_PATH b); [discriminate H2 | reflexivity].
Qed.

Lemma sps_keeps_scheme_chars b :
  (is_alnum b || (b =? 43) || (b =? 45) || (b =? 46) || (b =? 58) || (b =? 124)) = true ->
  should_encode T_SPECIAL_PATH_SEGMENT b = false.
Proof.
  intros H. assert (Hlt : b < 128).
  { unfold is_alnum, is_alpha, is_upper, is_lower, is_digit in H. lia. }
  pose proof (all_below_spec 128 _ sps_byte_sweep b Hlt) as Hs. unfold sps_byte_facts in Hs.
  apply andb_true_iff in Hs. destruct Hs as [_ Hs]. rewrite H in Hs. cbn [implb] in Hs.
  destruct (should_encode T_SPECIAL_PATH_SEGMENT b); [discriminate Hs | reflexivity].
Qed.

(* hex digits *)
Lemma hex_upper_facts d : d < 16 ->
  hex_upper d < 128 /\ ref_char_ok (hex_upper d) = true /\ should_encode T_PATH (hex_upper d) = false
  /\ hex_upper d <> 101.
Proof.
  intros H. assert (Hs : all_below 16 (fun d => (hex_upper d <? 128) && ref_char_ok (hex_upper d)
                           && negb (should_encode T_PATH (hex_upper d)) && negb (hex_upper d =? 101)) = true)
    by (vm_compute; reflexivity).
  pose proof (all_below_spec 16 _ Hs d H) as Hd. cbv beta in Hd.
  apply andb_true_iff in Hd. destruct Hd as [Hd H4]. apply andb_true_iff in Hd. destruct Hd as [Hd H3].
  apply andb_true_iff in Hd. destruct Hd as [H1 H2].
  repeat split; try assumption; try lia.
  destruct (should_encode T_PATH (hex_upper d)); [discriminate H3 | reflexivity].
Qed.

Lemma pct_facts : ref_char_ok 37 = true /\ should_encode T_PATH 37 = false
  /\ should_encode T_SPECIAL_PATH_SEGMENT 37 = true /\ should_encode T_SPECIAL_PATH_SEGMENT 46 = false.
Proof. vm_compute. repeat split. Qed.

Lemma enc_chars_ok c : bytes c ->
  Forall (fun x => x < 128 /\ ref_char_ok x = true /\ should_encode T_PATH x = false) (enc c).
Proof.
  intros Hb. apply enc_Forall; [exact Hb | | |].
  - destruct pct_facts as [H1 [H2 _]]. split; [lia | split; [exact H1 | exact H2]].
  - intros d Hd. destruct (hex_upper_facts d Hd) as [H1 [H2 [H3 _]]]. auto.
  - intros b Hk. destruct (sps_kept_inv b Hk) as [H1 [H2 [H3 _]]]. auto.
Qed.

(* an escape written by the encoder never spells "%2e" / "%2E" *)
Lemma enc_no_pct2e c e rest : bytes c -> (e = 69 \/ e = 101) -> enc c <> 37 :: 50 :: e :: rest.
Proof.
  intros Hb He Heq. destruct c as [|b c]; [discriminate Heq|].
  inversion Hb as [|? ? Hb1 Hb2]; subst. rewrite enc_cons in Heq. unfold enc1 in Heq.
  destruct (should_encode T_SPECIAL_PATH_SEGMENT b) eqn:E.
  - unfold enc_byte_spec in Heq. cbn [app] in Heq. inversion Heq as [[H1 H2 H3]]. unfold is_byte in Hb1.
    assert (Hhi : b / 16 = 2) by (unfold hex_upper in H1; destruct (b / 16 <? 10) eqn:E1; lia).
    destruct He as [-> | ->].
    + assert (Hlo : b mod 16 = 14) by (unfold hex_upper in H2; destruct (b mod 16 <? 10) eqn:E2; lia).
      assert (b = 46) by lia. subst b. destruct pct_facts as [_ [_ [_ H46]]]. rewrite H46 in E. discriminate E.
    + destruct (hex_upper_facts (b mod 16)) as [_ [_ [_ Hn]]]; [lia|]. exact (Hn H2).
  - cbn [app] in Heq. inversion Heq as [[H1 H2]]. subst b.
    destruct pct_facts as [_ [_ [H37 _]]]. rewrite H37 in E. discriminate E.
Qed.

Lemma is_pct2e_inv a b c : is_pct2e a b c = true -> a = 37 /\ b = 50 /\ (c = 69 \/ c = 101).
Proof. unfold is_pct2e. lia. Qed.

(* Inversions of Parser.is_single_dot / is_double_dot that give the text of s, read off the explicit forms of
   C01_EqDots (a pattern exists at lengths 1 and 3, and at 2, 4 and 6 for the double dot). *)
Lemma is_single_dot_inv2 s : is_single_dot s = true ->
  s = [46] \/ exists e, (e = 69 \/ e = 101) /\ s = [37; 50; e].
Proof.
  rewrite is_single_dot_eq. destruct s as [|a [|b [|c [|d r]]]]; cbn [is_single_dot']; try discriminate; intros H.
  - apply N.eqb_eq in H. subst a. left. reflexivity.
  - apply is_pct2e_inv in H. destruct H as (-> & -> & H). right. exists c. auto.
Qed.

Lemma is_double_dot_inv2 s : is_double_dot s = true ->
  s = [46; 46] \/ exists e rest, (e = 69 \/ e = 101) /\ (s = 37 :: 50 :: e :: rest \/ s = 46 :: 37 :: 50 :: e :: rest).
Proof.
  rewrite is_double_dot_eq.
  destruct s as [|a [|b [|c [|d [|e [|f [|g r]]]]]]]; cbn [is_double_dot']; try discriminate; intros H.
  - apply andb_true_iff in H. destruct H as [Ha Hb]. apply N.eqb_eq in Ha, Hb. subst a b. left. reflexivity.
  - right. apply orb_true_iff in H. destruct H as [H|H]; apply andb_true_iff in H; destruct H as [H1 H2].
    + apply N.eqb_eq in H1. apply is_pct2e_inv in H2. destruct H2 as (-> & -> & H2). subst a. exists d, []. auto.
    + apply is_pct2e_inv in H1. destruct H1 as (-> & -> & H1). exists c, [d]. auto.
  - right. apply andb_true_iff in H. destruct H as [H1 _]. apply is_pct2e_inv in H1. destruct H1 as (-> & -> & H1).
    exists c, [d; e; f]. auto.
Qed.

Lemma scheme_loop_enc f : bytes f -> scheme_like_tail f = false ->
  forall acc, parse_scheme_loop CUrlParser acc (enc f) = None.
Proof.
  induction f as [|c f IH]; intros Hb Hs acc; [reflexivity|].
  inversion Hb as [|? ? Hb1 Hb2]; subst. cbn [scheme_like_tail] in Hs.
  destruct (c =? 58) eqn:E58; [discriminate Hs|].
  rewrite enc_cons. unfold enc1.
  destruct (is_alnum c || (c =? 43) || (c =? 45) || (c =? 46)) eqn:Esc.
  - (* a scheme character: copied, the scan goes on *)
    assert (Hk : should_encode T_SPECIAL_PATH_SEGMENT c = false).
    { apply sps_keeps_scheme_chars. rewrite Esc. reflexivity. }
    rewrite Hk. cbn [app parse_scheme_loop].
    destruct (sps_kept_inv c Hk) as [_ [Hok _]]. apply ref_char_ok_inv in Hok. destruct Hok as [Ht _].
    rewrite Ht.
    destruct (is_lower c || is_digit c || (c =? 43) || (c =? 45) || (c =? 46)) eqn:E1; [apply IH; assumption|].
    destruct (is_upper c) eqn:E2; [apply IH; assumption|].
    exfalso. unfold is_alnum, is_alpha, is_upper, is_lower, is_digit in *. lia.
  - (* not a scheme character and not ':' : the scan stops with Err, on the byte or on its '%' *)
    destruct (should_encode T_SPECIAL_PATH_SEGMENT c) eqn:Ek.
    + unfold enc_byte_spec. cbn [app parse_scheme_loop]. reflexivity.
    + cbn [app parse_scheme_loop].
      destruct (sps_kept_inv c Ek) as [_ [Hok _]]. apply ref_char_ok_inv in Hok. destruct Hok as [Ht _].
      rewrite Ht, E58.
      replace (is_lower c || is_digit c || (c =? 43) || (c =? 45) || (c =? 46)) with false
        by (unfold is_alnum, is_alpha, is_upper, is_lower, is_digit in *; lia).
      replace (is_upper c) with false by (unfold is_alnum, is_alpha, is_upper, is_lower, is_digit in *; lia).
      reflexivity.
Qed.

Lemma parse_scheme_enc f : bytes f -> scheme_like f = false -> parse_scheme CUrlParser (enc f) = None.
Proof.
  intros Hb Hs. unfold parse_scheme.
  destruct (inp_starts_with_pred is_alpha (enc f)) eqn:Ea; [|reflexivity].
  apply scheme_loop_enc; [exact Hb|].
  destruct f as [|c f]; [reflexivity|].
  inversion Hb as [|? ? Hb1 Hb2]; subst. cbn [scheme_like scheme_like_tail] in *.
  destruct (is_alpha c) eqn:Eal.
  - (* a letter is a scheme character other than ':' *)
    replace (c =? 58) with false by (unfold is_alpha, is_upper, is_lower in Eal; lia).
    unfold is_alnum. rewrite Eal. exact Hs.
  - (* the first character of the reference is the byte itself or '%': not a letter *)
    exfalso. rewrite enc_cons in Ea. unfold enc1, inp_starts_with_pred in Ea.
    destruct (should_encode T_SPECIAL_PATH_SEGMENT c) eqn:Ek.
    + unfold enc_byte_spec in Ea. cbn [app] in Ea. rewrite inp_next_ok in Ea by reflexivity. discriminate Ea.
    + cbn [app] in Ea. destruct (sps_kept_inv c Ek) as [_ [Hok _]]. apply ref_char_ok_inv in Hok.
      destruct Hok as [Ht _]. rewrite inp_next_ok in Ea by exact Ht. congruence.
Qed.

Lemma decode_two a b : a <> 37 -> b <> 37 -> decode [a; b] = [a; b].
Proof. intros Ha Hb. rewrite decode_other by exact Ha. rewrite decode_other by exact Hb. reflexivity. Qed.

Lemma enc_is_two f a b : bytes f -> enc f = [a; b] -> a <> 37 -> b <> 37 -> f = [a; b].
Proof.
  intros Hb He Ha Hb2. rewrite <- (decode_enc f Hb), He. apply decode_two; assumption.
Qed.

Lemma wdl_shape_enc f : bytes f -> drive_like f = false ->
  forall a b, enc f = [a; b] -> is_alpha a = true -> ((b =? 58) || (b =? 124)) = true -> False.
Proof.
  intros Hb Hd a b He Ha Hbb.
  assert (Hf : f = [a; b]).
  { apply enc_is_two; try assumption; [unfold is_alpha, is_upper, is_lower in Ha; lia | lia]. }
  subst f. unfold drive_like in Hd. rewrite Ha, Hbb in Hd. discriminate Hd.
Qed.

Lemma is_wdl_enc f : bytes f -> drive_like f = false -> is_wdl (enc f) = false.
Proof.
  intros Hb Hd. destruct (is_wdl (enc f)) eqn:E; [|reflexivity]. exfalso.
  unfold is_wdl in E. apply andb_true_iff in E. destruct E as [El Es].
  destruct (enc f) as [|a [|b [|c r]]] eqn:Ee; try discriminate El.
  unfold starts_with_wdl in Es. rewrite andb_true_r in Es. apply andb_true_iff in Es. destruct Es as [Ha Hbb].
  exact (wdl_shape_enc f Hb Hd a b Ee Ha Hbb).
Qed.

Lemma wdl_segment_enc f : bytes f -> drive_like f = false -> starts_with_wdl_segment (enc f) = false.
Proof.
  intros Hb Hd. pose proof (enc_chars_ok f Hb) as Hch.
  destruct (enc f) as [|a [|b [|c r]]] eqn:Ee; unfold starts_with_wdl_segment.
  - reflexivity.
  - inversion Hch as [|? ? [_ [Ha _]] _]; subst. apply ref_char_ok_inv in Ha. destruct Ha as [Ha _].
    rewrite inp_next_ok by exact Ha. reflexivity.
  - inversion Hch as [|? ? [_ [Ha _]] Hch2]; subst. inversion Hch2 as [|? ? [_ [Hb2 _]] _]; subst.
    apply ref_char_ok_inv in Ha. destruct Ha as [Ha _]. apply ref_char_ok_inv in Hb2. destruct Hb2 as [Hb2 _].
    rewrite inp_next_ok by exact Ha. rewrite inp_next_ok by exact Hb2. cbn [inp_next drop_while].
    rewrite andb_true_r.
    destruct (is_alpha a && ((b =? 58) || (b =? 124))) eqn:E; [|reflexivity]. exfalso.
    apply andb_true_iff in E. destruct E as [E1 E2]. exact (wdl_shape_enc f Hb Hd a b Ee E1 E2).
  - inversion Hch as [|? ? [_ [Ha _]] Hch2]; subst. inversion Hch2 as [|? ? [_ [Hb2 _]] Hch3]; subst.
    inversion Hch3 as [|? ? [_ [Hc _]] _]; subst.
    apply ref_char_ok_inv in Ha. destruct Ha as [Ha _]. apply ref_char_ok_inv in Hb2. destruct Hb2 as [Hb2 _].
    apply ref_char_ok_inv in Hc. destruct Hc as [Hc1 [_ [Hc2 [Hc3 [Hc4 Hc5]]]]].
    rewrite inp_next_ok by exact Ha. rewrite inp_next_ok by exact Hb2. rewrite inp_next_ok by exact Hc1.
    unfold is_path_end. replace (c =? 47) with false by lia. replace (c =? 92) with false by lia.
    replace (c =? 63) with false by lia. replace (c =? 35) with false by lia.
    cbn [orb]. apply andb_false_r.
Qed.

Lemma enc_head_46 f rest : bytes f -> enc f = 46 :: rest -> exists f', f = 46 :: f' /\ enc f' = rest.
Proof.
  intros Hb He. destruct f as [|b f]; [discriminate He|]. rewrite enc_cons in He. unfold enc1 in He.
  destruct (should_encode T_SPECIAL_PATH_SEGMENT b).
  - unfold enc_byte_spec in He. cbn [app] in He. discriminate He.
  - cbn [app] in He. inversion He; subst. exists f. auto.
Qed.

Lemma double_dot_enc f : bytes f -> piece_is_dotdot f = false -> is_double_dot (enc f) = false.
Proof.
  intros Hb Hd. destruct (is_double_dot (enc f)) eqn:E; [|reflexivity]. exfalso.
  apply is_double_dot_inv2 in E. destruct E as [E | [e [rest [He [E | E]]]]].
  - assert (Hf : f = [46; 46]) by (apply enc_is_two; try assumption; discriminate).
    subst f. discriminate Hd.
  - exact (enc_no_pct2e f e rest Hb He E).
  - destruct (enc_head_46 f _ Hb E) as [f' [-> Hf']]. inversion Hb; subst.
    exact (enc_no_pct2e f' e rest ltac:(assumption) He Hf').
Qed.

Lemma single_dot_enc f : bytes f -> piece_is_dot f = false -> is_single_dot (enc f) = false.
Proof.
  intros Hb Hd. destruct (is_single_dot (enc f)) eqn:E; [|reflexivity]. exfalso.
  apply is_single_dot_inv2 in E. destruct E as [E | [e [He E]]].
  - assert (Hf : f = [46]).
    { rewrite <- (decode_enc f Hb), E. reflexivity. }
    subst f. discriminate Hd.
  - exact (enc_no_pct2e f e [] Hb He E).
Qed.

Lemma utf8_encode_ascii f : Forall (fun b => b < 128) f -> utf8_encode f = f.
Proof.
  induction f as [|b f IH]; intros H; [reflexivity|]. inversion H as [|? ? Hb Hf]; subst.
  unfold utf8_encode in *. cbn [flat_map]. rewrite (IH Hf). unfold utf8_encode1.
  replace (b <? 128) with true by lia. reflexivity.
Qed.

Lemma plain_name_inv f : plain_name f = true ->
  f <> [] /\ bytes f /\ ~ In 47 f /\ ~ In 0 f /\ piece_is_dot f = false /\ piece_is_dotdot f = false
  /\ scheme_like f = false /\ drive_like f = false.
Proof.
  unfold plain_name. intros H.
  apply andb_true_iff in H. destruct H as [H H6]. apply andb_true_iff in H. destruct H as [H H5].
  apply andb_true_iff in H. destruct H as [H H4]. apply andb_true_iff in H. destruct H as [H H3].
  apply andb_true_iff in H. destruct H as [H1 H2].
  rewrite forallb_forall in H2.
  repeat split.
  - intros ->. discriminate H1.
  - apply Forall_forall. intros b Hb. specialize (H2 b Hb). unfold is_byte. lia.
  - intros Hi. specialize (H2 47 Hi). discriminate H2.
  - intros Hi. specialize (H2 0 Hi). discriminate H2.
  - destruct (piece_is_dot f); [discriminate H3 | reflexivity].
  - destruct (piece_is_dotdot f); [discriminate H4 | reflexivity].
  - destruct (scheme_like f); [discriminate H5 | reflexivity].
  - destruct (drive_like f); [discriminate H6 | reflexivity].
Qed.

Theorem plain_name_ref f : plain_name f = true ->
  name_reference f = enc f /\ ref_ok (enc f) /\ decode (enc f) = f
  /\ keep_piece f = true /\ ~ In 47 f /\ piece_is_dotdot f = false.
Proof.
  intros H. destruct (plain_name_inv f H) as [Hne [Hb [H47 [_ [Hd [Hdd [Hs Hdl]]]]]]].
  pose proof (enc_chars_ok f Hb) as Hch.
  split; [unfold name_reference; apply pe_display_is_encode; exact Hb|].
  split.
  - constructor.
    + apply enc_nonempty. exact Hne.
    + eapply Forall_impl; [|exact Hch]. cbv beta. tauto.
    + rewrite utf8_encode_ascii by (eapply Forall_impl; [|exact Hch]; cbv beta; tauto).
      rewrite pe_display_is_encode.
      * apply encode_id_iff. eapply Forall_impl; [|exact Hch]. cbv beta. tauto.
      * eapply Forall_impl; [|exact Hch]. cbv beta. unfold is_byte. intros a Ha. lia.
    + apply parse_scheme_enc; assumption.
    + apply wdl_segment_enc; assumption.
    + apply double_dot_enc; assumption.
    + apply single_dot_enc; assumption.
    + apply is_wdl_enc; assumption.
  - split; [apply decode_enc; exact Hb|].
    split; [|split; [exact H47 | exact Hdd]].
    unfold keep_piece. rewrite Hd. destruct f; [congruence | reflexivity].
Qed.

Section Plain.
Variable dbg : bool.
Variable host_parse : list N -> result host.
Variable host_parse_opaque : list N -> result host.
Variable host_display : host -> list N.

Theorem dir_join_plain p f :
  bytes p -> path_is_absolute p = true -> plain_name f = true ->
  exists d u q,
    from_directory_path p = FOk d
    /\ url_join dbg host_parse host_parse_opaque host_display d (name_reference f) = POk u
    /\ to_file_path dbg u = FOk q
    /\ path_components q = path_components p ++ [CNormal f]
    /\ path_eq q (path_join p f) = true
    /\ dir_join_to_path dbg host_parse host_parse_opaque host_display p (name_reference f) = FOk q.
Proof.
  intros Hb Ha Hp.
  destruct (plain_name_ref f Hp) as [Href [Hok [Hdec [Hk [Hn Hdd]]]]].
  destruct (plain_name_inv f Hp) as [Hne _].
  destruct (dir_join_generic dbg host_parse host_parse_opaque host_display p (enc f) f Hb Ha Hok Hdec Hk Hn Hdd)
    as [d [u [q [H1 [H2 [_ [_ [H4 H5]]]]]]]].
  exists d, u, q. rewrite Href.
  split; [exact H1|]. split; [exact H2|]. split; [exact H4|]. split; [exact H5|].
  split.
  - unfold path_eq. rewrite H5. rewrite (components_path_join p f Ha Hne Hn Hk Hdd). apply components_eqb_refl.
  - unfold dir_join_to_path. rewrite H1, H2. exact H4.
Qed.
End Plain.
