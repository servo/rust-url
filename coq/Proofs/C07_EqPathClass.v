(* Proofs/C07_EqPathClass.v - the second clause of C07_statement ("parsing yields related records")
   for the authority-less class of the C01 equivalence: no base, non-special scheme, "scheme:/" not
   followed by a second '/' ("a:/x/../y?q#f", "web+demo:/.//p"), outside Known_C01's drive-letter
   class (in_class_pathonly of Proofs/C01_EqClasses.v).  Both parsers yield the canonical
   authority-less records of Proofs/C01_EqPath.v, and these are related by corrS. *)
From RU Require Import Base.Prelude Base.Utf8 Base.Utf8Facts Model.AsciiSet Gen.Tables Model.PercentEncoding
  Model.HostT Model.UrlRecord Model.Parser Model.Setters Model.WF Model.KnownC01 Model.KnownC07 Spec.Whatwg
  Proofs.ListN Proofs.C02_Enc Proofs.C02_Parts Proofs.C02_Opaque Proofs.C02_Path Proofs.C03_WF Proofs.C06_Steps
  Proofs.C06_FragQuery Proofs.C08_Input
  Proofs.C01_Tables Proofs.C01_EqRun Proofs.C01_EqEnc Proofs.C01_EqApi Proofs.C01_EqOpaque Proofs.C01_EqRef
  Proofs.C01_EqPathSpec Proofs.C01_EqPath Proofs.C01_EqClasses
  Proofs.C07_Defs Proofs.C07_Corr Proofs.C07_EqFive Proofs.C07_EqOpaqueClass Proofs.C07_SpecProto Proofs.C07_EqSix Proofs.C01_EqRef Proofs.C07_EqRel.

Section NoAuthCorr.
Variable dbg : bool.
Variable shs : spec_host -> list N.

Theorem corr_noauth sch P q f :
  let T := flat_map (fun s => 47 :: s) P in
  P <> [] -> forallb no_slash P = true -> wf_b (noauth_url sch T q f) = true ->
  corr dbg shs (noauth_url sch T q f) (spec_noauth_url sch P q f).
Proof.
  intros T Hne Hns W.
  assert (has_authority_b (noauth_url sch T q f) = false) as Hna.
  { rewrite (auth_by_offsets _ W). unfold noauth_url. cbn [scheme_end username_end].
    rewrite nlen_app. change (nlen [58]) with 1. lia. }
  apply related_corr_of; cbn [spec_noauth_url su_host su_port]; try exact I.
  - exact (related_noauth dbg shs sch P q f Hne Hns W).
  - intros X. discriminate X.
  - intros un Hun. rewrite (noauth_username dbg _ un W); [reflexivity | pose proof (nf_ue (wf_noauth_facts _ W Hna)); lia | exact Hun].
  - intros X. discriminate X.
Qed.

Lemma sane_noauth sch P q f : is_special_scheme sch = false -> sane (spec_noauth_url sch P q f).
Proof.
  intros Ens.
  constructor; unfold cannot_have_username_password_port, is_special, includes_credentials, has_opaque_path;
    cbn [spec_noauth_url su_scheme su_username su_password su_host su_port su_path].
  - intros _. split; reflexivity.
  - rewrite Ens. discriminate.
  - discriminate.
Qed.

End NoAuthCorr.

Section PathClass.
Variable dbg : bool.
Variable hp hpo : list N -> result host.
Variable hd : host -> list N.
Variable shp : bool -> list N -> option spec_host.
Variable shs : spec_host -> list N.

(* parsing an input of the class yields records related by corrS (or the model reports Overflow: a
   serialization longer than u32::MAX) *)
Theorem pathonly_class_corrS input : usv_list input -> in_class_pathonly input = true ->
  exists su, spec_basic_url_parse shp input None = BDone su
    /\ (parse_url dbg hp hpo hd None None input = PErr Overflow
        \/ exists u, parse_url dbg hp hpo hd None None input = POk u /\ corrS dbg shs u su).
Proof.
  intros Hu Hc. unfold in_class_pathonly in Hc. rewrite spec_clean_is_ntnl_trim in Hc.
  destruct (spec_scheme (ntnl (input_new_trim_c0 input))) as [[sch rest]|] eqn:Es; [|discriminate].
  destruct rest as [|c0 rest']; [discriminate|].
  destruct (N.eq_dec c0 47) as [->|Hne].
  2:{ exfalso. destruct c0 as [|p]; [discriminate|]. do 6 (destruct p as [p|p|]; try discriminate). apply Hne. reflexivity. }
  apply andb_true_iff in Hc. destruct Hc as [Hc H3]. apply andb_true_iff in Hc. destruct Hc as [H1 H2].
  destruct (spec_scheme_model _ _ _ Es) as (rem & Hs & Hrem).
  assert (is_special_scheme sch = false) as Hns by (destruct (is_special_scheme sch); [discriminate | reflexivity]).
  assert (starts_with_cp 47 rest' = false) as H47 by (destruct (starts_with_cp 47 rest'); [discriminate | reflexivity]).
  pose proof (not_special_type sch Hns) as Ht.
  destruct (slash_split rem rest' Hrem H47) as (rem' & Er' & Hss & Hsp).
  subst rest'.
  destruct (model_noauth dbg hp hpo hd None shp input sch rem rem' Hu Hs Ht Hss Hsp H3) as [Hsnd Hm].
  eexists. split; [exact (spec_noauth shp input sch rem rem' Hs Ht Hrem H47 Hsnd)|].
  destruct Hm as [E|[E W]]; [left; exact E|].
  right. eexists. split; [exact E|].
  assert (fst (spath (ntnl rem') [] []) <> []) as Hne.
  { clear. generalize (@nil (list N)) at 1. generalize (@nil N).
    induction (ntnl rem') as [|c r IH]; intros B P; cbn [spath].
    - cbn [fst]. apply fin_nonempty.
    - destruct (c =? 47); [apply IH|]. destruct (is_qh c); [cbn [fst]; apply fin_nonempty | apply IH]. }
  split; [apply corr_noauth; [exact Hne | apply spath_no_slash; reflexivity | exact W] | apply sane_noauth; exact Hns].
Qed.

End PathClass.
