(* Proofs/C01_EqEmpty.v - C01 equivalence for the empty reference (nothing left after cleaning)
   against a related base that can be a base: the base without its fragment, on both sides. *)
From RU Require Import Base.Prelude Model.HostT Model.UrlRecord Model.Parser Model.Setters Model.KnownC08
  Spec.Whatwg Proofs.ListN Proofs.C03_WF Proofs.C06_List Proofs.C08_Input Proofs.C08_Simple Proofs.C01_EqRun
  Proofs.C01_EqEnc Proofs.C01_EqRef.

Section Empty.
Variable dbg : bool.
Variable hp hpo : list N -> result host.
Variable hd : host -> list N.
Variable shp : bool -> list N -> option spec_host.
Variable shs : spec_host -> list N.

Theorem spec_empty_ref input sb : spec_clean input = [] -> spec_valid sb -> has_opaque_path sb = false ->
  spec_basic_url_parse shp input (Some sb) = BDone (set_fragment sb None).
Proof.
  intros Hc [V1 V2] Hop. apply spec_parse_of_runs. rewrite Hc.
  apply runs_no_scheme; [reflexivity|].
  destruct (list_eqb (su_scheme sb) str_file) eqn:Ef.
  - apply list_eqb_spec in Ef. destruct (V2 Ef) as (Vu & Vp & Vpo).
    eapply (runs_step_restart shp [] (Some sb) StNoScheme [] [] false false false empty_url StFile [] false false false empty_url).
    + rewrite (step_unfold shp [] (Some sb) _ [] []) by reflexivity. cbn zeta. cbn [hd_error].
      unfold st_no_scheme. rewrite Hop, Ef, list_eqb_refl. cbn [cis andb negb]. reflexivity.
    + match goal with |- Runs _ _ _ _ (BDone ?x) =>
        eapply (R_end shp [] (Some sb)) with (m' := at_pos StFile [] [] false false false x)
      end; [|cbn [m_ptr at_pos length]; lia].
      rewrite (step_unfold shp [] (Some sb) _ [] []) by reflexivity. cbn zeta. cbn [hd_error tl].
      unfold st_file, base_is_file. rewrite Ef, list_eqb_refl. cbn [cis orb].
      unfold set_url, at_pos. cbn [m_state m_ptr m_buf m_at m_br m_pw]. do 2 f_equal.
      destruct sb; cbn in *; subst; reflexivity.
  - eapply (runs_step_restart shp [] (Some sb) StNoScheme [] [] false false false empty_url StRelative [] false false false empty_url).
    + rewrite (step_unfold shp [] (Some sb) _ [] []) by reflexivity. cbn zeta. cbn [hd_error].
      unfold st_no_scheme. rewrite Hop, Ef. cbn [cis andb negb]. reflexivity.
    + match goal with |- Runs _ _ _ _ (BDone ?x) =>
        eapply (R_end shp [] (Some sb)) with (m' := at_pos StRelative [] [] false false false x)
      end; [|cbn [m_ptr at_pos length]; lia].
      rewrite (step_unfold shp [] (Some sb) _ [] []) by reflexivity. cbn zeta. cbn [hd_error tl].
      unfold st_relative. cbn [cis andb is_eof negb]. rewrite andb_false_r.
      unfold set_url, at_pos. cbn [m_state m_ptr m_buf m_at m_br m_pw]. reflexivity.
Qed.

Theorem related_without_fragment b sb : related dbg shs b sb ->
  related dbg shs (without_fragment b) (set_fragment sb None).
Proof using dbg hp hpo shp shs.
  intros R. pose proof (rel_wf _ _ _ _ R) as W.
  destruct (without_fragment_spec dbg b W) as (W' & SF & SM & Pth & Qy & Fr & Eqs & Efs & Es).
  apply (related_refragment dbg shs b _ sb None R W' SF SM Pth Qy Fr).
  - rewrite Es. symmetry. apply app_nil_r.
  - unfold b_before_fragment at 1. rewrite Efs. exact Es.
  - unfold b_before_query at 1. rewrite Eqs, Efs, Es.
    destruct (before_query_le_before_fragment b W) as [Lbq Pbq].
    destruct (query_start b) as [qi|] eqn:Eqq.
    + unfold b_before_query in *. rewrite Eqq in *.
      pose proof (qf_q (wf_qf_facts b W)) as Q1. rewrite Eqq in Q1.
      rewrite nlen_nfirstn in Lbq by lia. unfold agree_pre in Pbq. rewrite nlen_nfirstn in Pbq by lia.
      rewrite nfirstn_nfirstn in Pbq by lia. symmetry. exact Pbq.
    + unfold b_before_query, b_before_fragment. rewrite Eqq. destruct (fragment_start b); reflexivity.
Qed.

Theorem eq_empty_ref input b sb : related dbg shs b sb -> has_opaque_path sb = false ->
  spec_clean input = [] ->
  exists su', spec_basic_url_parse shp input (Some sb) = BDone su'
    /\ exists u', parse_url dbg hp hpo hd None (Some b) input = POk u' /\ related dbg shs u' su'.
Proof.
  intros R Hop Hc. eexists. split; [exact (spec_empty_ref input sb Hc (rel_valid _ _ _ _ R) Hop)|].
  assert (ref_text input = []) as Hr by (rewrite ref_text_eq, <- spec_clean_is_ntnl_trim; exact Hc).
  assert (cannot_be_a_base b = Some false) as Hcb by (rewrite (rel_cbb _ _ _ _ R), Hop; reflexivity).
  eexists. split; [exact (join_empty dbg hp hpo hd b input Hcb Hr)|].
  apply related_without_fragment. exact R.
Qed.

End Empty.
