(* Proofs/C04_Parse.v - pieces of the totality of Parser::parse_url that need no well-formed base:
   the path loop on the canonical shape of Proofs/C02_PathL1.v (loop_total, the totality twin of C02_PathL1.loop_inv),
   the panic! of parse_query_and_fragment (pqf_no_panic), and the authority states: the `next_utf8().unwrap()` of
   parse_userinfo's second pass, parse_host, parse_port, parse_host_and_port. *)
From RU Require Import Base.Prelude Base.Utf8 Base.Utf8Facts Model.AsciiSet Gen.Tables
  Model.PercentEncoding Model.HostT Model.UrlRecord Model.Parser Model.WF
  Proofs.ListN Proofs.C14_Set Proofs.C14_Enc Proofs.C14_Views Proofs.C02_Enc Proofs.C02_Parts
  Proofs.C02_Opaque Proofs.C02_Path Proofs.C02_PathL1.

(* ---------- the path loop is total on the canonical shape (totality twin of C02_PathL1.loop_inv) ---------- *)
Section LoopTotal.
Variable pre : list N.
Variable dbg : bool.
Notation ps := (nlen pre).
Notation loop := (parse_path_loop dbg CUrlParser STNotSpecial ps).

Theorem loop_total l : forall segs cur pend hh, usv_list l -> pend_ok pend ->
  forallb good_seg segs = true -> clean T_PATH cur = true -> no_slash cur = true ->
  exists segs' last',
    loop l (Bs pre segs ++ cur) (nlen (Bs pre segs)) pend hh = POk (Bs pre segs' ++ last', hh, cbb_rest l)
    /\ forallb good_seg segs' = true /\ good_seg last' = true.
Proof.
  assert (forall l0 segs cur pend hh,
            match l0 with [] => True | c :: _ => is_qh c = true /\ is_tnl c = false end ->
            pend_ok pend -> forallb good_seg segs = true -> clean T_PATH cur = true -> no_slash cur = true ->
            exists segs' last',
              loop l0 (Bs pre segs ++ cur) (nlen (Bs pre segs)) pend hh = POk (Bs pre segs' ++ last', hh, l0)
              /\ forallb good_seg segs' = true /\ good_seg last' = true) as Hend.
  { intros l0 segs cur pend hh Hl Hp Hsegs Hc Hn.
    rewrite loop_end by exact Hl. rewrite push_pending_shape by (destruct Hp; assumption).
    destruct (pend_flush cur pend Hc Hn Hp) as [Hc' Hn'].
    destruct (finish_inv pre dbg segs (cur ++ encode T_PATH (utf8_encode (rev pend))) false hh Hsegs Hc' Hn')
      as (segs' & last' & Hf & G1 & G2 & _).
    rewrite app_nil_r in Hf. rewrite Hf. cbn [pbind]. exists segs', last'. repeat split; assumption. }
  induction l as [|c r IH]; intros segs cur pend hh Hu Hp Hsegs Hc Hn.
  - exact (Hend [] segs cur pend hh I Hp Hsegs Hc Hn).
  - apply usv_cons in Hu. destruct Hu as [Huc Hur]. cbn [cbb_rest].
    destruct (is_tnl c) eqn:Et.
    + rewrite loop_cons_tnl by exact Et. rewrite push_pending_shape by (destruct Hp; assumption).
      destruct (pend_flush cur pend Hc Hn Hp) as [Hc' Hn'].
      apply (IH segs (cur ++ encode T_PATH (utf8_encode (rev pend))) [] hh Hur); try assumption.
      split; [constructor | reflexivity].
    + destruct (is_qh c) eqn:Eq.
      * apply (Hend (c :: r) segs cur pend hh); try assumption. split; assumption.
      * destruct (c =? 47) eqn:E47.
        -- apply N.eqb_eq in E47. subst c. rewrite loop_cons_slash.
           rewrite push_pending_shape by (destruct Hp; assumption).
           destruct (pend_flush cur pend Hc Hn Hp) as [Hc' Hn'].
           destruct (finish_inv pre dbg segs (cur ++ encode T_PATH (utf8_encode (rev pend))) true hh Hsegs Hc' Hn')
             as (segs' & last' & Hf & G1 & G2 & G3).
           rewrite <- app_assoc. rewrite Hf. cbn [pbind]. rewrite (G3 eq_refl). rewrite app_nil_r.
           destruct (IH segs' [] [] hh Hur (conj (Forall_nil _) eq_refl) G1 eq_refl eq_refl) as (s2 & l2 & HE & HA & HB).
           rewrite app_nil_r in HE. exists s2, l2. repeat split; assumption.
        -- rewrite loop_cons_plain by assumption.
           apply (IH segs cur (c :: pend) hh Hur); try assumption.
           destruct Hp as [Hp1 Hp2]. split; [apply usv_cons; split; assumption|].
           unfold no_byte in *. cbn [forallb]. rewrite E47, Hp2. reflexivity.
Qed.
End LoopTotal.

(* ---------- parse_query_and_fragment: its panic! arm needs a first character other than '?' / '#' ---------- *)
Lemma pqf_no_panic ovr ctx st se ser l :
  match inp_next l with None => True | Some (c, _) => is_qh c = true end ->
  parse_query_and_fragment ovr ctx st se ser l <> PPanic.
Proof.
  unfold parse_query_and_fragment. destruct (inp_next l) as [[c r]|]; [|intros _; discriminate].
  unfold is_qh. intros Hq. unfold to_u32. destruct (c =? 35).
  - destruct (nlen ser <=? U32_MAX_P); cbn [pbind]; discriminate.
  - destruct (c =? 63); [|discriminate].
    destruct (nlen ser <=? U32_MAX_P); cbn [pbind]; try discriminate.
    destruct (parse_query ovr ctx st se (ser ++ [63]) r) as [ser1 [r2|]]; [|discriminate].
    destruct (nlen ser1 <=? U32_MAX_P); cbn [pbind]; discriminate.
Qed.

Lemma to_u32_not_panic n : to_u32 n <> PPanic.
Proof. unfold to_u32. destruct (n <=? U32_MAX_P); discriminate. Qed.

Ltac du32 x v E :=
  destruct (to_u32 x) as [v| |] eqn:E; cbn [pbind];
  [ | discriminate | exfalso; exact (to_u32_not_panic x E) ].

(* ---------- the authority states: parse_userinfo's `next_utf8().unwrap()` and parse_host_and_port ---------- *)
(* number of characters the skipping iterator yields *)
Fixpoint ntnl (l : list N) : N :=
  match l with [] => 0 | c :: r => if is_tnl c then ntnl r else 1 + ntnl r end.

(* the first pass returns a count that the second pass can consume *)
Lemma scan_last_at_count special l : forall count last n rem,
  scan_last_at special l count last = Some (n, rem) ->
  last = Some (n, rem) \/ (count <= n /\ n - count < ntnl l).
Proof.
  induction l as [|c r IH]; intros count last n rem H; cbn [scan_last_at ntnl] in *.
  - left. exact H.
  - destruct (is_tnl c).
    + destruct (IH _ _ _ _ H) as [G|G]; [left; exact G | right; exact G].
    + destruct (c =? 64).
      * destruct (IH _ _ _ _ H) as [G|G].
        -- inversion G; subst. right. lia.
        -- right. lia.
      * destruct ((c =? 47) || (c =? 63) || (c =? 35) || (c =? 92) && special).
        -- left. exact H.
        -- destruct (IH _ _ _ _ H) as [G|G]; [left; exact G | right; lia].
Qed.

Lemma userinfo_loop_no_panic l : forall n ser uend hpw hun, n <= ntnl l ->
  userinfo_loop l n ser uend hpw hun <> PPanic.
Proof.
  induction l as [|c r IH]; intros n ser uend hpw hun Hn.
  - cbn [ntnl] in Hn. assert (n = 0) as -> by lia. cbn. discriminate.
  - cbn [userinfo_loop]. destruct (n =? 0) eqn:E0; [discriminate|].
    cbn [ntnl] in Hn. destruct (is_tnl c); [apply IH; exact Hn|].
    assert (n - 1 <= ntnl r) as Hn' by lia.
    destruct ((c =? 58) && match uend with None => true | Some _ => false end).
    + unfold to_u32. destruct (nlen ser <=? U32_MAX_P); cbn [pbind]; [|discriminate].
      destruct (0 <? n - 1); apply IH; exact Hn'.
    + apply IH. exact Hn'.
Qed.

Theorem parse_userinfo_no_panic st ser l : parse_userinfo st ser l <> PPanic.
Proof.
  unfold parse_userinfo. destruct (scan_last_at (st_is_special st) l 0 None) as [[n rem]|] eqn:Es.
  - destruct n as [|p].
    + destruct (inp_next rem) as [[c r]|]; [|discriminate].
      destruct ((c =? 47) || (c =? 63) || (c =? 35) || st_is_special st && (c =? 92)); [discriminate|].
      unfold to_u32. destruct (nlen ser <=? U32_MAX_P); cbn [pbind]; discriminate.
    + destruct (scan_last_at_count _ _ _ _ _ _ Es) as [G|[_ G]]; [discriminate|].
      pose proof (userinfo_loop_no_panic l (N.pos p) ser None false false ltac:(lia)) as Hu.
      destruct (userinfo_loop l (N.pos p) ser None false false) as [[[[ser1 uend] hpw] hun]| |]; cbn [pbind];
        [|discriminate|congruence].
      destruct uend as [i|]; cbn [pbind]; [discriminate|].
      unfold to_u32. destruct (nlen ser1 <=? U32_MAX_P); cbn [pbind]; discriminate.
  - unfold to_u32. destruct (nlen ser <=? U32_MAX_P); cbn [pbind]; discriminate.
Qed.

Lemma parse_port_loop_no_panic ctx l : forall port any, parse_port_loop ctx l port any <> PPanic.
Proof.
  induction l as [|c r IH]; intros port any; cbn [parse_port_loop]; [discriminate|].
  destruct (is_tnl c); [apply IH|]. destruct (is_digit c).
  - destruct (65535 <? port * 10 + (c - 48)); [discriminate | apply IH].
  - destruct (ctx_eqb ctx CUrlParser && negb (is_path_end c)); discriminate.
Qed.

Section HostPort.
Variable hp hpo : list N -> result host.
Variable hd : host -> list N.

Lemma parse_host_no_panic st l : parse_host hp hpo st l <> PPanic.
Proof.
  unfold parse_host. destruct (st_is_file st).
  - unfold get_file_host. destruct (file_host l) as [h rem]. destruct (hp h); cbn; discriminate.
  - destruct (host_scan (st_is_special st) false [] l) as [h rem].
    destruct (scheme_type_eqb st STSpecialNotFile && match h with [] => true | _ => false end); [discriminate|].
    destruct (negb (st_is_special st)); [destruct (hpo h) | destruct (hp h)]; cbn; discriminate.
Qed.

Lemma parse_port_no_panic ctx dflt l : parse_port ctx dflt l <> PPanic.
Proof.
  unfold parse_port. pose proof (parse_port_loop_no_panic ctx l 0 false) as Hp.
  destruct (parse_port_loop ctx l 0 false) as [[[p any] rem2]| |]; cbn [pbind]; [|discriminate|congruence].
  destruct (negb any && ctx_eqb ctx CSetter && negb (inp_is_empty rem2)); cbn [pbind]; discriminate.
Qed.

Theorem parse_host_and_port_no_panic ctx st se ser l :
  parse_host_and_port hp hpo hd ctx st se ser l <> PPanic.
Proof.
  unfold parse_host_and_port. pose proof (parse_host_no_panic st l) as Hh.
  destruct (parse_host hp hpo st l) as [[host remaining]| |]; cbn [pbind]; [|discriminate|congruence].
  unfold to_u32. destruct (nlen (ser ++ hd host) <=? U32_MAX_P); cbn [pbind]; [|discriminate].
  match goal with |- pbind ?x _ <> _ => destruct x as [[]| |] eqn:Ex end; cbn [pbind]; try discriminate.
  - destruct (inp_split_prefix_char 58 remaining) as [rem|]; [|discriminate].
    pose proof (parse_port_no_panic ctx (default_port (nfirstn se (ser ++ hd host))) rem) as Hp.
    destruct (parse_port ctx (default_port (nfirstn se (ser ++ hd host))) rem) as [[pt rm2]| |]; cbn [pbind]; [discriminate | discriminate | congruence].
  - exfalso. destruct host as [[|d0 d]| |]; try discriminate Ex.
    destruct (inp_starts_with_char 58 remaining); [discriminate Ex|]. destruct (st_is_special st); discriminate Ex.
Qed.
End HostPort.
