(* Proofs/C08_Simple.v - the empty reference, '#f' and '?q': by unfolding parse_url / parse_relative /
   parse_file / fragment_only; what the resulting record means for the accessors through the
   elementary edits of C06_Steps (cut the fragment, cut the query, append a query, append a fragment). *)
From RU Require Import Base.Prelude Base.Utf8 Base.Utf8Facts Model.AsciiSet Gen.Tables Model.PercentEncoding
  Model.HostT Model.UrlRecord Model.Parser Model.Setters Model.WF Model.KnownC08
  Proofs.ListN Proofs.C14_Enc Proofs.C02_Enc Proofs.C02_Parts Proofs.C02_Opaque Proofs.C03_WF Proofs.C06_List Proofs.C06_WFI
  Proofs.C06_Tail Proofs.C06_Steps Proofs.C06_FragQuery Proofs.C08_Input.

(* the base without fragment / without query and fragment, as records *)
Definition without_fragment (b : url) : url := url_with b (b_before_fragment b) (query_start b) None.
Definition without_query (b : url) : url := url_with b (b_before_query b) None None.

Lemma url_with_self b : url_with b (ser b) (query_start b) (fragment_start b) = b.
Proof. destruct b; reflexivity. Qed.

Lemma without_fragment_spec dbg b : wf_b b = true ->
  let u' := without_fragment b in
  wf_b u' = true /\ same_front dbg b u' /\ same_main b u' /\ path u' = path b /\ query dbg u' = query dbg b
  /\ fragment dbg u' = Some None /\ query_start u' = query_start b /\ fragment_start u' = None
  /\ ser u' = b_before_fragment b.
Proof.
  intros W u'. subst u'. unfold without_fragment, b_before_fragment.
  destruct (fragment_start b) as [f|] eqn:Ef.
  - destruct (cut_fragment_step dbg b f W Ef) as (W1 & SF1 & SM1 & P1 & Q1 & Qs1 & Ef1 & Es1 & _).
    change (url_with b (nfirstn f (ser b)) (query_start b) None) with (cut_fragment b f).
    split; [exact W1|]. split; [exact SF1|]. split; [exact SM1|]. split; [exact P1|]. split; [exact Q1|].
    split; [rewrite (fragment_eval dbg _ W1), Ef1; reflexivity|]. split; [exact Qs1|]. split; [exact Ef1 | exact Es1].
  - assert (url_with b (ser b) (query_start b) None = b) as -> by (rewrite <- Ef; apply url_with_self).
    split; [exact W|]. split; [apply same_front_refl|]. split; [apply same_main_refl|]. split; [reflexivity|].
    split; [reflexivity|]. split; [rewrite (fragment_eval dbg _ W), Ef; reflexivity|]. split; [reflexivity|].
    split; [exact Ef | reflexivity].
Qed.

Lemma without_query_spec dbg b : wf_b b = true ->
  let u' := without_query b in
  wf_b u' = true /\ same_front dbg b u' /\ same_main b u' /\ path u' = path b
  /\ query_start u' = None /\ fragment_start u' = None /\ ser u' = b_before_query b
  /\ nlen (b_before_query b) <= nlen (ser b).
Proof.
  intros W u'.
  destruct (without_fragment_spec dbg b W) as (W1 & SF1 & SM1 & P1 & _ & _ & Qs1 & Ef1 & Es1).
  set (u1 := without_fragment b) in *.
  assert (nlen (ser u1) <= nlen (ser b)) as L1.
  { rewrite Es1. unfold b_before_fragment. destruct (fragment_start b); [|lia].
    pose proof (nlen_nfirstn_le n (ser b)). unfold nlen, nfirstn in *. rewrite firstn_length. lia. }
  destruct (query_start b) as [q|] eqn:Eq.
  - destruct (cut_query_step dbg u1 q W1 Ef1 Qs1) as (W2 & SF2 & SM2 & P2 & Eq2 & Ef2 & Es2 & Hlt).
    assert (u' = cut_query u1 q) as ->.
    { subst u' u1. unfold without_query, without_fragment, cut_query, url_with, b_before_query, b_before_fragment, truncate, set_query_start, set_ser.
      rewrite Eq. cbn [set_ser set_query_start ser scheme_end username_end host_start host_end hosti port path_start
                        query_start fragment_start].
      f_equal. destruct (fragment_start b) as [f|] eqn:Ef; [|reflexivity].
      pose proof (qf_qf (wf_qf_facts b W)) as Hqf. rewrite Eq, Ef in Hqf.
      rewrite nfirstn_nfirstn by lia. reflexivity. }
    split; [exact W2|]. split; [eapply same_front_trans; eassumption|]. split; [eapply same_main_trans; eassumption|].
    split; [congruence|]. split; [exact Eq2|]. split; [exact Ef2|]. split.
    + rewrite Es2, Es1. unfold b_before_query, b_before_fragment. rewrite Eq.
      destruct (fragment_start b) as [f|] eqn:Ef; [|reflexivity].
      pose proof (qf_qf (wf_qf_facts b W)) as Hqf. rewrite Eq, Ef in Hqf.
      rewrite nfirstn_nfirstn by lia. reflexivity.
    + unfold b_before_query. rewrite Eq. unfold nlen, nfirstn. rewrite firstn_length. lia.
  - assert (u' = u1) as ->.
    { subst u' u1. unfold without_query, without_fragment, b_before_query, b_before_fragment. rewrite Eq.
      destruct (fragment_start b); reflexivity. }
    split; [exact W1|]. split; [exact SF1|]. split; [exact SM1|]. split; [exact P1|].
    split; [congruence|]. split; [exact Ef1|]. split.
    + rewrite Es1. unfold b_before_query, b_before_fragment. rewrite Eq. destruct (fragment_start b); reflexivity.
    + unfold b_before_query. rewrite Eq. destruct (fragment_start b); [|lia].
      unfold nlen, nfirstn. rewrite firstn_length. lia.
Qed.

(* '?' and '#' parts of the reference on the stripped text *)
Fixpoint before_hash (l : list N) : list N :=
  match l with [] => [] | c :: r => if c =? 35 then [] else c :: before_hash r end.
Fixpoint after_hash (l : list N) : option (list N) :=
  match l with [] => None | c :: r => if c =? 35 then Some r else after_hash r end.

Lemma query_chars_ntnl r : query_chars true r = before_hash (ntnl r).
Proof.
  induction r as [|c t IH]; [reflexivity|]. cbn [query_chars]. destruct (is_tnl c) eqn:Et.
  - rewrite ntnl_cons_tnl by exact Et. exact IH.
  - rewrite ntnl_cons by exact Et. cbn [before_hash]. rewrite andb_true_r. destruct (c =? 35); [reflexivity|].
    f_equal. exact IH.
Qed.

Lemma query_rest_ntnl r : option_map ntnl (query_rest true r) = after_hash (ntnl r).
Proof.
  induction r as [|c t IH]; [reflexivity|]. cbn [query_rest]. destruct (is_tnl c) eqn:Et.
  - rewrite ntnl_cons_tnl by exact Et. exact IH.
  - rewrite ntnl_cons by exact Et. cbn [after_hash]. rewrite andb_true_r. destruct (c =? 35); [reflexivity|]. exact IH.
Qed.

Lemma frag_of_ntnl r : frag_of r = encode T_FRAGMENT (utf8_encode (ntnl r)).
Proof. reflexivity. Qed.

Lemma clean_query_no_h st t : clean (query_set st) t = true -> forallb no_h t = true.
Proof.
  intros H. apply (forallb_impl not_tnl_hash no_h).
  - intros x Hx. unfold not_tnl_hash in Hx. apply andb_true_iff in Hx. exact (proj2 Hx).
  - eapply clean_forallb; [apply kept_query_set_sat | exact H].
Qed.

Section Simple.
Variables (dbg : bool) (hp hpo : list N -> result host) (hd : host -> list N).
Notation join b input := (parse_url dbg hp hpo hd None (Some b) input).

(* the empty reference *)
Theorem join_empty b input : cannot_be_a_base b = Some false -> ref_text input = [] ->
  join b input = POk (without_fragment b).
Proof.
  intros Hc He. unfold parse_url. set (l := input_new_trim_c0 input). change (ntnl l = []) in He.
  rewrite parse_scheme_first_not_alpha by (rewrite He; exact I).
  unfold inp_starts_with_char. rewrite (inp_next_none l He). rewrite Hc.
  destruct (st_is_file (scheme_type_of (b_scheme b))).
  - unfold parse_file, inp_split_first. rewrite (inp_next_none l He). reflexivity.
  - unfold parse_relative, inp_split_first. rewrite (inp_next_none l He). reflexivity.
Qed.

(* '#' f *)
Definition with_fragment (b : url) (x : list N) : url :=
  url_with b (b_before_fragment b ++ 35 :: x) (query_start b) (Some (nlen (b_before_fragment b))).

Theorem join_frag_eq b input f : usv_list input -> ref_text input = 35 :: f ->
  join b input = (fs <~ to_u32 (nlen (b_before_fragment b)) ;;
                  POk (with_fragment b (encode T_FRAGMENT (utf8_encode f)))).
Proof.
  intros Hu He. unfold parse_url. set (l := input_new_trim_c0 input). change (ntnl l = 35 :: f) in He.
  assert (usv_list l) as Hl by (apply usv_trim; exact Hu).
  rewrite parse_scheme_first_not_alpha by (rewrite He; reflexivity).
  destruct (inp_next_some l 35 f He) as (r & En & Er & _).
  unfold inp_starts_with_char. rewrite En. cbn [N.eqb Pos.eqb].
  unfold fragment_only. rewrite En.
  destruct (to_u32 (nlen (b_before_fragment b))) as [n| |] eqn:Eu; cbn [pbind]; try reflexivity.
  apply to_u32_inv in Eu. destruct Eu as [-> _].
  rewrite parse_fragment_text. rewrite tnl_text_spec by (eapply inp_next_usv; eassumption).
  change (filter not_tnl r) with (ntnl r). rewrite Er.
  unfold with_fragment, url_with. rewrite <- app_assoc. reflexivity.
Qed.

Theorem join_frag b input f : usv_list input -> ref_text input = 35 :: f ->
  nlen (b_before_fragment b) <= U32_MAX_P ->
  join b input = POk (with_fragment b (encode T_FRAGMENT (utf8_encode f))).
Proof. intros Hu He Hb. rewrite (join_frag_eq b input f Hu He), to_u32_ok by exact Hb. reflexivity. Qed.

Theorem join_frag_out b input f u' : usv_list input -> ref_text input = 35 :: f ->
  join b input = POk u' -> u' = with_fragment b (encode T_FRAGMENT (utf8_encode f)).
Proof.
  intros Hu He. rewrite (join_frag_eq b input f Hu He).
  destruct (to_u32 (nlen (b_before_fragment b))); cbn [pbind]; intros H; try discriminate. inversion H. reflexivity.
Qed.

Lemma with_fragment_spec b x : wf_b b = true ->
  let u' := with_fragment b x in
  wf_b u' = true /\ same_front dbg b u' /\ same_main b u' /\ path u' = path b /\ query dbg u' = query dbg b
  /\ fragment dbg u' = Some (Some x)
  /\ ser u' = b_before_fragment b ++ 35 :: x.
Proof.
  intros W u'.
  destruct (without_fragment_spec dbg b W) as (W1 & SF1 & SM1 & P1 & Q1 & _ & Qs1 & Ef1 & Es1).
  destruct (add_fragment_step dbg (without_fragment b) x W1 Ef1) as (W2 & SF2 & SM2 & P2 & Q2 & Qs2 & F2).
  assert (u' = add_fragment (without_fragment b) x) as ->.
  { subst u'. unfold with_fragment, add_fragment, without_fragment, url_with, set_fragment_start, set_ser.
    cbn [set_ser set_fragment_start ser scheme_end username_end host_start host_end hosti port path_start
         query_start fragment_start]. reflexivity. }
  split; [exact W2|]. split; [eapply same_front_trans; eassumption|]. split; [eapply same_main_trans; eassumption|].
  split; [congruence|]. split; [congruence|]. split; [exact F2|].
  unfold add_fragment. cbn [set_ser set_fragment_start ser]. rewrite Es1. reflexivity.
Qed.

(* '?' q *)
Definition b_st (b : url) : scheme_type := scheme_type_of (b_scheme b).

(* the query text and the fragment the reference '?' ++ q leads to *)
Definition ref_query (st : scheme_type) (q : list N) : list N :=
  encode (query_set st) (utf8_encode (before_hash q)).
Definition ref_fragment (q : list N) : option (list N) :=
  option_map (fun x => encode T_FRAGMENT (utf8_encode x)) (after_hash q).

Definition with_query (b : url) (Q : list N) (F : option (list N)) : url :=
  url_with b (b_before_query b ++ 63 :: Q ++ qf_ftext F) (Some (nlen (b_before_query b)))
           (match F with Some _ => Some (nlen (b_before_query b) + 1 + nlen Q) | None => None end).

Lemma with_query_spec b Q F : wf_b b = true -> forallb no_h Q = true ->
  let u' := with_query b Q F in
  wf_b u' = true /\ same_front dbg b u' /\ same_main b u' /\ path u' = path b
  /\ query dbg u' = Some (Some Q) /\ fragment dbg u' = Some F.
Proof.
  intros W HQ u'.
  destruct (without_query_spec dbg b W) as (W2 & SF2 & SM2 & P2 & Eq2 & Ef2 & Es2 & _).
  set (u2 := without_query b) in *.
  destruct (add_query_step dbg u2 Q W2 Ef2 Eq2 HQ) as (W3 & SF3 & SM3 & P3 & Q3 & Ef3).
  set (u3 := add_query u2 Q) in *.
  assert (ser u3 = b_before_query b ++ 63 :: Q) as Es3.
  { subst u3. unfold add_query. cbn [set_ser set_query_start ser]. rewrite Es2. reflexivity. }
  destruct F as [x|].
  - destruct (add_fragment_step dbg u3 x W3 Ef3) as (W4 & SF4 & SM4 & P4 & Q4 & Qs4 & F4).
    assert (u' = add_fragment u3 x) as ->.
    { subst u' u3 u2. unfold with_query, add_fragment, add_query, without_query, url_with, qf_ftext, set_fragment_start, set_query_start, set_ser.
      cbn [set_ser set_query_start set_fragment_start ser scheme_end username_end host_start host_end hosti port
           path_start query_start fragment_start].
      f_equal.
      - rewrite <- app_assoc. reflexivity.
      - rewrite nlen_app, nlen_cons. f_equal. lia. }
    split; [exact W4|]. split; [eapply same_front_trans; [|exact SF4]; eapply same_front_trans; eassumption|].
    split; [eapply same_main_trans; [|exact SM4]; eapply same_main_trans; eassumption|].
    split; [congruence|]. split; [congruence|]. exact F4.
  - assert (u' = u3) as ->.
    { subst u' u3 u2. unfold with_query, add_query, without_query, url_with, qf_ftext, set_fragment_start, set_query_start, set_ser.
      cbn [set_ser set_query_start set_fragment_start ser scheme_end username_end host_start host_end hosti port
           path_start query_start fragment_start]. rewrite app_nil_r. reflexivity. }
    split; [exact W3|]. split; [eapply same_front_trans; eassumption|].
    split; [eapply same_main_trans; eassumption|]. split; [congruence|]. split; [exact Q3|].
    rewrite (fragment_eval dbg _ W3), Ef3. reflexivity.
Qed.

(* the record the '?' arm builds *)
Lemma query_arm b l q s qs fs : wf_b b = true -> usv_list l -> ntnl l = 63 :: q ->
  parse_query_and_fragment None CUrlParser (b_st b) (scheme_end b) (b_before_query b) l = POk (s, qs, fs) ->
  url_with b s qs fs = with_query b (ref_query (b_st b) q) (ref_fragment q)
  /\ forallb no_h (ref_query (b_st b) q) = true.
Proof.
  intros W Hl He H.
  destruct (pqf_out None (b_st b) (scheme_end b) _ l s qs fs Hl eq_refl H) as (Es & Eqs & Efs & _ & _ & Cq & _).
  destruct (inp_next_some l 63 q He) as (r & En & Er & _).
  assert (pqf_q (b_st b) l = Some (ref_query (b_st b) q)) as Pq.
  { unfold pqf_q. rewrite En. cbn [N.eqb Pos.eqb]. unfold query_of, ref_query. rewrite query_chars_ntnl, Er. reflexivity. }
  assert (pqf_f l = ref_fragment q) as Pf.
  { unfold pqf_f. rewrite En. cbn [N.eqb Pos.eqb]. unfold ref_fragment. rewrite <- Er, <- query_rest_ntnl.
    destruct (query_rest true r); reflexivity. }
  rewrite Pq in *. rewrite Pf in *. cbn [opt_clean] in Cq. split; [|exact (clean_query_no_h _ _ Cq)].
  subst s qs fs. unfold with_query, qf_text, qf_qtext, qf_qs, qf_fs.
  f_equal. destruct (ref_fragment q); [|reflexivity]. f_equal. cbn [qf_qtext]. rewrite nlen_cons. lia.
Qed.

Theorem join_query b input q u' : wf_b b = true -> cannot_be_a_base b = Some false ->
  usv_list input -> ref_text input = 63 :: q ->
  join b input = POk u' ->
  u' = with_query b (ref_query (b_st b) q) (ref_fragment q)
  /\ forallb no_h (ref_query (b_st b) q) = true.
Proof.
  intros W Hc Hu He. unfold parse_url. set (l := input_new_trim_c0 input). change (ntnl l = 63 :: q) in He.
  assert (usv_list l) as Hl by (apply usv_trim; exact Hu).
  rewrite parse_scheme_first_not_alpha by (rewrite He; reflexivity).
  destruct (inp_next_some l 63 q He) as (r & En & Er & _).
  unfold inp_starts_with_char. rewrite En. cbn [N.eqb Pos.eqb]. rewrite Hc.
  fold (b_st b).
  assert (forall X : pres url,
    (s3 <~ parse_query_and_fragment None CUrlParser (b_st b) (scheme_end b) (b_before_query b) l ;;
     (let '(s, qs, fs) := s3 in POk (url_with b s qs fs))) = POk u' -> X = X ->
    u' = with_query b (ref_query (b_st b) q) (ref_fragment q) /\ forallb no_h (ref_query (b_st b) q) = true) as K.
  { intros _ H _. destruct (parse_query_and_fragment None CUrlParser (b_st b) (scheme_end b) (b_before_query b) l)
      as [[[s qs] fs]| |] eqn:E; cbn [pbind] in H; try discriminate.
    inversion H; subst u'. eapply query_arm; eassumption. }
  destruct (st_is_file (b_st b)).
  - unfold parse_file, inp_split_first. rewrite En. cbn [is_slash_or_bslash N.eqb Pos.eqb orb].
    intros H. exact (K (POk u') H eq_refl).
  - unfold parse_relative, inp_split_first. rewrite En. cbn [N.eqb Pos.eqb].
    intros H. exact (K (POk u') H eq_refl).
Qed.

End Simple.
