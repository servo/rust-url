(* Proofs/C04_CostIdna.v - cost of the two OUTPUT WALKS of Uts46::process (uts46.rs 802-913 and 925-1026).
   A walk costs what it hands to the sink: every write call one step plus the bytes (code points) written
   (wsize; `chars l` is one write_char per element), plus the cost of the internal Punycode encoder for the labels it
   encodes.  The encoder is the quadratic step the property text mentions; its cost is a PARAMETER here (there is no
   cost twin of Model/Punycode.v); what is proved about it is the cap: every label of domain_buffer is ASCII (never
   encoded), marked with U+FFFD (never encoded: it is written as Unicode, or the run ends in an error) or at most 1000
   scalar values long (labels_capped, from the marking-run invariant of Proofs/Idna_WalkEnc.v), and a walk calls the
   encoder at most once per label.
   RESULT (walk1_wsize, walk2_wsize): the writes of a walk are bounded by
        (the prefix of the input, flushed AT MOST ONCE: |domain_name| + 1)
      + for every label: 2 |label| + 2 |its mixed-case source slice| + (2 |encoder output| + 5) + 4,
   i.e. linear in |domain_name| + |domain_buffer| + the encoder outputs; no term is multiplied by the number of labels. *)
From RU Require Import Base.Prelude Base.Utf8 Base.U32_c13 Gen.Tables Model.Punycode Model.Uts46
  Proofs.Idna_WalkNoPanic Proofs.Idna_WalkEnc Proofs.C04_Uts46_Inner.

(* ---------------------------------------------------------------- definitions *)
Definition wsize (ws : list (list N)) : N := fold_right (fun w a => 1 + len w + a) 0 ws.

Definition apsize (ap : aal) : N :=
  match ap with MixedCaseAscii l | MixedCasePunycode l => len l | AalOther => 0 end.

Section Walk.
Variable cfg : bool.

(* "xn--" and one write_char per code unit of the encoder output *)
Definition encsize (label : list N) : N :=
  match encode_internal cfg label with Ok o => 2 * len o + 5 | _ => 5 end.

Fixpoint wbound (labels : list (list N)) (aps : list aal) : N :=
  match labels, aps with
  | label :: ls, ap :: as_ => 2 * len label + 2 * apsize ap + encsize label + 4 + wbound ls as_
  | _, _ => 0
  end.

(* ---------------------------------------------------------------- sizes of the building blocks *)
Lemma len_cons (x : N) l : len (x :: l) = 1 + len l.
Proof. unfold len. cbn [length]. lia. Qed.
Lemma len_app (a b : list N) : len (a ++ b) = len a + len b.
Proof. unfold len. rewrite app_length. lia. Qed.
Lemma len_map (f : N -> N) l : len (map f l) = len l.
Proof. unfold len. rewrite map_length. reflexivity. Qed.
Lemma len_firstn_le n (l : list N) : len (firstn n l) <= len l.
Proof. unfold len. rewrite firstn_length. pose proof (Nat.le_min_r n (length l)). lia. Qed.
Lemma len_firstn_skipn n (l : list N) : len (firstn n l) + len (skipn n l) = len l.
Proof. rewrite <- len_app, firstn_skipn. reflexivity. Qed.

Lemma wsize_app a b : wsize (a ++ b) = wsize a + wsize b.
Proof. unfold wsize. induction a as [|w a IH]; cbn [app fold_right]; lia. Qed.
Lemma wsize_chars l : wsize (chars l) = 2 * len l.
Proof.
  unfold chars, wsize. induction l as [|c l IH]; [reflexivity|]. cbn [map fold_right].
  rewrite IH, !len_cons. change (len []) with 0. lia.
Qed.
Lemma wsize_wcons w r : wsize (fst (wcons w r)) = 1 + len w + wsize (fst r).
Proof. reflexivity. Qed.
Lemma wsize_wapp ws r : wsize (fst (wapp ws r)) = wsize ws + wsize (fst r).
Proof. unfold wapp. cbn [fst]. apply wsize_app. Qed.

(* D = what flushing the passed-through prefix of the input costs, at most once *)
Definition fl_cost (domain_name : list N) (flushed : bool) : N := if flushed then 0 else len domain_name + 1.

Lemma flush_prefix_size dn pte flushed k R : wsize (fst k) <= R ->
  wsize (fst (flush_prefix dn pte flushed k)) <= fl_cost dn flushed + R.
Proof.
  intros H. unfold flush_prefix, fl_cost. destruct flushed; [lia|]. rewrite wsize_wcons.
  pose proof (len_firstn_le (N.to_nat pte) dn). lia.
Qed.

Lemma mixed_write_size dn mc he pc s1 s2 pte flushed k R :
  (forall p f, wsize (fst (k p f)) <= fl_cost dn f + R) ->
  wsize (fst (mixed_write cfg dn mc he pc s1 s2 pte flushed k)) <= fl_cost dn flushed + 2 * len mc + 2 + R.
Proof.
  intros Hk. unfold mixed_write. destruct (position is_upper mc) as [fu|].
  - pose proof (len_firstn_skipn fu mc) as Hs. destruct flushed.
    + rewrite wsize_wcons, wsize_wapp, wsize_chars, len_map. specialize (Hk pte true). unfold fl_cost in *. lia.
    + cbv zeta. destruct (cfg && (pte + len (firstn fu mc) =? len dn)); [cbn; unfold fl_cost; lia|].
      rewrite wsize_wcons, wsize_wapp, wsize_chars, len_map. specialize (Hk (pte + len (firstn fu mc)) true).
      pose proof (len_firstn_le (N.to_nat (pte + len (firstn fu mc))) dn). unfold fl_cost in *. lia.
  - destruct flushed.
    + rewrite wsize_wcons. specialize (Hk pte true). unfold fl_cost in *. lia.
    + cbv zeta. destruct (pc && (pte + len mc =? len dn)).
      * destruct (cfg && he); cbn; unfold fl_cost; lia.
      * specialize (Hk (pte + len mc) false). lia.
Qed.

Lemma write_punycode_size label k R : wsize (fst k) <= R ->
  wsize (fst (write_punycode_label cfg label k)) <= encsize label + R.
Proof.
  intros H. unfold write_punycode_label, encsize. destruct (encode_internal cfg label) as [o| |s].
  - rewrite wsize_wcons, wsize_wapp, wsize_chars. change (len XN_PREFIX) with 4. lia.
  - cbn. lia.
  - cbn. lia.
Qed.

(* ---------------------------------------------------------------- the first walk *)
Lemma walk1_wsize ff oau dn tld bidi he labels : forall aps seen pte flushed huo,
  wsize (fst (walk1 cfg ff oau dn tld bidi he labels aps seen pte flushed huo)) <= fl_cost dn flushed + wbound labels aps.
Proof.
  induction labels as [|label labels IH]; intros aps seen pte flushed huo; cbn [walk1 wbound]; [cbn; lia|].
  destruct aps as [|ap aps]; [cbn; lia|].
  set (R := wbound labels aps).
  assert (Body : forall p fl,
    wsize (fst (match ap with
      | MixedCaseAscii mixed_case =>
          mixed_write cfg dn mixed_case he true 830 844 p fl (fun pte0 flushed0 => walk1 cfg ff oau dn tld bidi he labels aps true pte0 flushed0 huo)
      | _ =>
          if ff && cfg && (match classify_for_punycode label with PcError => true | _ => false end)
          then ([], WPanic 852)
          else
          let potentially_punycode :=
            if ff then negb (is_ascii_l label)
            else match classify_for_punycode label with PcUnicode => true | _ => false end in
          let unicode := if potentially_punycode then oau label tld bidi else true in
          let huo' := if potentially_punycode then huo || unicode else huo in
          let k' := fun pte0 flushed0 => walk1 cfg ff oau dn tld bidi he labels aps true pte0 flushed0 huo' in
          if unicode then flush_prefix dn p fl (wapp (chars label) (k' p true))
          else match ap with
               | MixedCasePunycode mixed_case => mixed_write cfg dn mixed_case he true 885 899 p fl k'
               | _ => flush_prefix dn p fl (write_punycode_label cfg label (k' p true))
               end
      end)) <= fl_cost dn fl + (2 * len label + 2 * apsize ap + encsize label + 2 + R)).
  { intros p fl.
    assert (Hk : forall h p0 f0, wsize (fst (walk1 cfg ff oau dn tld bidi he labels aps true p0 f0 h)) <= fl_cost dn f0 + R)
      by (intros h p0 f0; apply IH).
    assert (Huni : forall h, wsize (fst (flush_prefix dn p fl (wapp (chars label) (walk1 cfg ff oau dn tld bidi he labels aps true p true h))))
                             <= fl_cost dn fl + (2 * len label + R)).
    { intros h. apply flush_prefix_size. rewrite wsize_wapp, wsize_chars. specialize (Hk h p true). unfold fl_cost in Hk. lia. }
    assert (Henc : forall h, wsize (fst (flush_prefix dn p fl (write_punycode_label cfg label (walk1 cfg ff oau dn tld bidi he labels aps true p true h))))
                             <= fl_cost dn fl + (encsize label + R)).
    { intros h. apply flush_prefix_size. apply write_punycode_size. specialize (Hk h p true). unfold fl_cost in Hk. lia. }
    destruct ap as [mc|mc|]; cbn [apsize].
    - pose proof (mixed_write_size dn mc he true 830 844 p fl _ R (Hk huo)). lia.
    - destruct (ff && cfg && _); [cbn; lia|]. cbv zeta.
      match goal with |- context [if ?u then flush_prefix _ _ _ (wapp _ _) else _] => destruct u end.
      + match goal with |- context [walk1 _ _ _ _ _ _ _ _ _ _ _ _ ?h] => specialize (Huni h) end. lia.
      + match goal with |- context [mixed_write _ _ _ _ _ _ _ _ _ ?kk] =>
          pose proof (mixed_write_size dn mc he true 885 899 p fl kk R) as Hm end.
        cbv beta in Hm. specialize (Hm ltac:(intros p0 f0; apply Hk)). lia.
    - destruct (ff && cfg && _); [cbn; lia|]. cbv zeta.
      match goal with |- context [if ?u then flush_prefix _ _ _ (wapp _ _) else _] => destruct u end.
      + match goal with |- context [walk1 _ _ _ _ _ _ _ _ _ _ _ _ ?h] => specialize (Huni h) end. lia.
      + match goal with |- context [walk1 _ _ _ _ _ _ _ _ _ _ _ _ ?h] => specialize (Henc h) end. lia. }
  cbv zeta in Body |- *. destruct seen.
  - destruct flushed.
    + rewrite wsize_wcons. change (len [DOT]) with 1.
      eapply N.le_trans; [apply N.add_le_mono_l; exact (Body pte true)|]. unfold fl_cost. lia.
    + destruct (cfg && negb (nth (N.to_nat pte) dn 256 =? DOT)); [cbn; unfold fl_cost; lia|].
      destruct (pte + 1 =? len dn); [destruct (cfg && he); cbn; unfold fl_cost; lia|].
      eapply N.le_trans; [exact (Body (pte + 1) false)|]. lia.
  - eapply N.le_trans; [exact (Body pte flushed)|]. lia.
Qed.

(* ---------------------------------------------------------------- the second walk (ASCII sink) *)
Lemma walk2_wsize dn he labels : forall aps seen pte flushed,
  wsize (fst (walk2 cfg dn he labels aps seen pte flushed)) <= fl_cost dn flushed + wbound labels aps.
Proof.
  induction labels as [|label labels IH]; intros aps seen pte flushed; cbn [walk2 wbound].
  - pose proof (flush_prefix_size dn pte flushed ([], WEnd false) 0 ltac:(cbn; lia)). lia.
  - destruct aps as [|ap aps]; [cbn; lia|].
    set (R := wbound labels aps).
    assert (Hk : forall p0 f0, wsize (fst (walk2 cfg dn he labels aps true p0 f0)) <= fl_cost dn f0 + R) by (intros; apply IH).
    assert (Body : forall p fl,
      wsize (fst (match ap with
        | MixedCaseAscii mixed_case => mixed_write cfg dn mixed_case he false 949 0 p fl (fun pte0 flushed0 => walk2 cfg dn he labels aps true pte0 flushed0)
        | _ =>
          if is_ascii_l label then flush_prefix dn p fl (wapp (chars label) (walk2 cfg dn he labels aps true p true))
          else match ap with
               | MixedCasePunycode mixed_case => mixed_write cfg dn mixed_case he false 992 0 p fl (fun pte0 flushed0 => walk2 cfg dn he labels aps true pte0 flushed0)
               | _ => flush_prefix dn p fl (write_punycode_label cfg label (walk2 cfg dn he labels aps true p true))
               end
        end)) <= fl_cost dn fl + (2 * len label + 2 * apsize ap + encsize label + 2 + R)).
    { intros p fl.
      assert (Huni : wsize (fst (flush_prefix dn p fl (wapp (chars label) (walk2 cfg dn he labels aps true p true))))
                     <= fl_cost dn fl + (2 * len label + R)).
      { apply flush_prefix_size. rewrite wsize_wapp, wsize_chars. specialize (Hk p true). unfold fl_cost in Hk. lia. }
      assert (Henc : wsize (fst (flush_prefix dn p fl (write_punycode_label cfg label (walk2 cfg dn he labels aps true p true))))
                     <= fl_cost dn fl + (encsize label + R)).
      { apply flush_prefix_size. apply write_punycode_size. specialize (Hk p true). unfold fl_cost in Hk. lia. }
      destruct ap as [mc|mc|]; cbn [apsize].
      - eapply N.le_trans; [exact (mixed_write_size dn mc he false 949 0 p fl _ R Hk)|lia].
      - destruct (is_ascii_l label); [lia|].
        eapply N.le_trans; [exact (mixed_write_size dn mc he false 992 0 p fl _ R Hk)|lia].
      - destruct (is_ascii_l label); lia. }
    cbv zeta in Body |- *. destruct seen.
    + destruct flushed.
      * rewrite wsize_wcons. change (len [DOT]) with 1.
        eapply N.le_trans; [apply N.add_le_mono_l; exact (Body pte true)|]. unfold fl_cost. lia.
      * destruct (cfg && negb (nth (N.to_nat pte) dn 256 =? DOT)); [cbn; unfold fl_cost; lia|].
        eapply N.le_trans; [exact (Body (pte + 1) false)|]. lia.
    + eapply N.le_trans; [exact (Body pte flushed)|]. lia.
Qed.
End Walk.

(* ---------------------------------------------------------------- the cap on what the encoder can see *)
(* the guard in front of the quadratic encoder (uts46.rs:1607-1618): check_label lets a non-ASCII label longer than
   PUNYCODE_ENCODE_MAX_INPUT_LENGTH through only with the error flag set (mark-errors mode), not at all in fail-fast mode *)
Lemma check_label_cap A cfg ff hy lab he f1 f2 lab' he' :
  check_label A cfg ff hy lab he f1 f2 = SOk (lab', he') ->
  is_ascii_l lab' = false -> PUNYCODE_ENCODE_MAX_INPUT_LENGTH < len lab' ->
  ff = false /\ he' = true.
Proof.
  unfold check_label.
  match goal with |- sbind ?x _ = _ -> _ => destruct x as [[l1 h1]| |] end;
    cbn [sbind]; try (intros H; discriminate H).
  match goal with |- sbind ?x _ = _ -> _ => destruct x as [[l2 h2]| |] end;
    cbn [sbind]; try (intros H; discriminate H).
  match goal with |- sbind ?x _ = _ -> _ => destruct x as [[l3 h3]| |] end;
    cbn [sbind]; try (intros H; discriminate H).
  destruct (negb (is_ascii_l l3) && (PUNYCODE_ENCODE_MAX_INPUT_LENGTH <? len l3)) eqn:E.
  - destruct ff; cbv iota; [intros H; discriminate H|].
    destruct (len l3 <=? PUNYCODE_ENCODE_MAX_INPUT_LENGTH); [intros H; discriminate H|].
    intros H _ _. inversion H; subst. split; reflexivity.
  - intros H Ha Hl. inversion H; subst. rewrite Ha in E. cbn [negb andb] in E. lia.
Qed.

(* every label of the domain_buffer that the marking run (mark-errors mode; the fail-fast run either agrees with it or
   exits) leaves is made of scalar values and is ASCII, or marked with U+FFFD, or at most 1000 scalar values long: the
   same invariant as Idna_WalkEnc.process_innermost_enc, exported with the length instead of "the encoder succeeds" *)
From RU Require Import Proofs.Idna_Mark Proofs.Idna_MarkFffd.

Section Cap.
Variable A : adapter.
Variable cfg : bool.
Hypothesis HU : AdapterUSV A.

Lemma process_innermost_capped hy deny d tail ptu bd he db ap :
  process_innermost A cfg false hy deny d tail = IRes ptu bd he db ap -> Forall capped (split_on DOT db).
Proof.
  unfold process_innermost.
  set (s0 := {| i_ptu := len d - len tail; i_seen := false; i_inpre := true; i_db := []; i_he := false; i_ap := [] |}).
  assert (HX : I_EXIT = IRes ptu bd he db ap -> Forall capped (split_on DOT db)).
  { intros H. inversion H. subst. constructor; [left; reflexivity|constructor]. }
  destruct (labels_loop A cfg false hy deny (split_on DOT tail) s0) as [s| |p] eqn:El; [|exact HX|discriminate].
  pose proof (labels_loop_CInv A cfg HU hy deny _ (split_on_nodot tail) s0 s eq_refl El) as HC. unfold CInv in HC.
  destruct (i_inpre s).
  - rewrite HC. cbn [is_bidi]. intros H. inversion H. subst. constructor; [left; reflexivity|constructor].
  - destruct HC as (_ & dbl & Hne & Hdb & Hnd & Hcd).
    destruct (is_bidi A cfg (i_db s)) as [[|]| |p]; try discriminate.
    + pose proof (bidi_labels_BLP A (split_on DOT (i_db s)) (i_he s)) as HB.
      destruct (bidi_labels A false (split_on DOT (i_db s)) (i_he s)) as [[ls he2]| |p]; [|exact HX|discriminate].
      intros H. inversion H. subst. cbn [BLP] in HB. destruct HB as [HM _].
      rewrite Hdb, (split_join dbl Hne Hnd) in HM.
      assert (Hls : ls <> []) by (intros ->; inversion HM; subst; congruence).
      rewrite (split_join ls Hls (marked_all_nodot _ _ Hnd HM)).
      clear -HM Hcd. induction HM as [|a b la lb Hab _ IH]; [constructor|]. inversion Hcd; subst.
      constructor; [exact (proj2 (marked_capQ _ _ Hab ltac:(assumption)))|apply IH; assumption].
    + intros H. inversion H. subst. rewrite Hdb, (split_join dbl Hne Hnd).
      eapply Forall_impl; [|exact Hcd]. intros l Hl. exact (proj2 Hl).
Qed.

Theorem labels_capped hy deny d :
  match process_inner A cfg false hy deny d with
  | IRes _ _ _ db _ => Forall capped (split_on DOT db)
  | IPanic _ => True
  end.
Proof.
  unfold process_inner. destruct (fast_tier d d) as [tail|].
  - destruct (process_innermost A cfg false hy deny d tail) as [ptu bd he db ap|s] eqn:E; [|exact I].
    exact (process_innermost_capped _ _ _ _ _ _ _ _ _ E).
  - constructor; [left; reflexivity|constructor].
Qed.
End Cap.
