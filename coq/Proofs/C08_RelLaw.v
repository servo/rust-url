(* Proofs/C08_RelLaw.v - the make_relative inverse law for hierarchical records ("scheme://..." with
   authority, or "scheme:/path" without authority and without the "/." marker), every scheme except "file":  inside MR_ok, join(base, make_relative(base, target)) = target.
   Both records in explicit form (hier_url), sharing everything in front of the path; the target's
   segments, query and fragment canonical (what the parser stores), the base's path only free of stray '/'. *)
From RU Require Import Base.Prelude Base.Utf8 Base.Utf8Facts Model.AsciiSet Gen.Tables Model.PercentEncoding
  Model.HostT Model.UrlRecord Model.Parser Model.Setters Model.WF Model.MakeRelative Model.KnownC08
  Proofs.ListN Proofs.C14_Enc Proofs.C02_Enc Proofs.C02_Parts Proofs.C02_Opaque Proofs.C02_Path Proofs.C02_PathL1 Proofs.C02_JoinPath
  Proofs.C08_Input Proofs.C08_Simple Proofs.C08_Contain Proofs.C08_RelEval Proofs.C08_RelPath Proofs.C08_RelJoin
  Proofs.C08_RelMr.

(* the scheme test on the first emitted segment *)
Definition sep_head (rest : list N) : Prop :=
  match rest with [] => True | c :: _ => c = 47 \/ c = 63 \/ c = 35 end.

Lemma scheme_tail_app s rest : scheme_tail_b s = false -> sep_head rest -> scheme_tail_b (s ++ rest) = false.
Proof.
  intros H Hr. induction s as [|c s IH].
  - cbn [app]. destruct rest as [|d r]; [reflexivity|]. cbn [scheme_tail_b].
    destruct Hr as [ -> | [ -> | -> ] ]; reflexivity.
  - cbn [app scheme_tail_b] in *. destruct (is_alnum c || (c =? 43) || (c =? 45) || (c =? 46)); [exact (IH H) | exact H].
Qed.

Lemma has_scheme_app s rest : has_scheme_b s = false -> sep_head rest -> has_scheme_b (s ++ rest) = false.
Proof.
  intros H Hr. destruct s as [|c s].
  - cbn [app]. destruct rest as [|d r]; [reflexivity|]. unfold has_scheme_b.
    destruct Hr as [ -> | [ -> | -> ] ]; reflexivity.
  - unfold has_scheme_b in *. cbn [app]. destruct (is_alpha c); [|reflexivity]. cbn [andb] in *.
    change (c :: s ++ rest) with ((c :: s) ++ rest). apply scheme_tail_app; assumption.
Qed.

Lemma qf_text_sep q f : sep_head (qf_text q f).
Proof. unfold qf_text, sep_head. destruct q; destruct f; cbn; auto. Qed.

Lemma existsb_false_forall {A} (f : A -> bool) l : existsb f l = false -> forall x, In x l -> f x = false.
Proof.
  intros H x Hin. destruct (f x) eqn:E; [|reflexivity].
  assert (existsb f l = true) by (apply existsb_exists; exists x; split; assumption). congruence.
Qed.

(* the first character of the path part *)
Lemma seg_ok_head st c s : seg_ok st (c :: s) = true -> seg_char c = true /\ no_spec_bslash st c = true.
Proof.
  intros H. destruct (seg_ok_parts st _ H) as [Hg Hb]. apply good_seg_chars in Hg.
  cbn [forallb] in Hg, Hb. apply andb_true_iff in Hg, Hb. split; tauto.
Qed.

Lemma rp_head st ra rb tlast :
  forallb nonempty rb = true -> forallb (seg_ok st) rb = true -> seg_ok st tlast = true ->
  (ra <> [] \/ rb <> [] \/ tlast <> []) ->
  exists c rp', dots_text ra ++ segs_text rb ++ tlast = c :: rp' /\ seg_char c = true /\ no_spec_bslash st c = true.
Proof.
  intros Hne Hrb Htl Hsome. destruct ra as [|a ra].
  - destruct rb as [|s rb].
    + destruct tlast as [|c l]; [exfalso; destruct Hsome as [H|[H|H]]; apply H; reflexivity|].
      exists c, l. split; [reflexivity|]. apply (seg_ok_head st c l). exact Htl.
    + cbn [forallb] in Hne, Hrb. apply andb_true_iff in Hne, Hrb. destruct Hne as [Hn _]. destruct Hrb as [Hs _].
      destruct s as [|c s]; [discriminate|].
      exists c, (s ++ [47] ++ segs_text rb ++ tlast). split.
      * unfold segs_text. cbn [dots_text map concat app]. rewrite <- !app_assoc. reflexivity.
      * apply (seg_ok_head st c s). exact Hs.
  - exists 46, ([46; 47] ++ dots_text ra ++ segs_text rb ++ tlast). split; [|split; reflexivity].
    unfold dots_text. cbn [map concat app]. reflexivity.
Qed.

Record rel_ok (pre : list N) (se : N) (bsegs : list (list N)) (blast : list N)
              (tsegs : list (list N)) (tlast : list N) (tq tf : option (list N)) : Prop := mk_rel_ok {
  ro_front : front_pre se pre;
  ro_nofile : st_is_file (scheme_type_of (nfirstn se pre)) = false;
  ro_bsegs : forallb no_slash bsegs = true;
  ro_blast : no_slash blast = true;
  ro_tsegs : forallb (seg_ok (scheme_type_of (nfirstn se pre))) tsegs = true;
  ro_tlast : seg_ok (scheme_type_of (nfirstn se pre)) tlast = true;
  ro_q : opt_clean (query_set (scheme_type_of (nfirstn se pre))) tq;
  ro_f : opt_clean T_FRAGMENT tf;
  ro_bq : opt_le (qf_qs (nlen (pre ++ path_text tsegs tlast)) tq) U32_MAX_P;
  ro_bf : opt_le (qf_fs (nlen (pre ++ path_text tsegs tlast)) tq tf) U32_MAX_P
}.

Lemma segs_ok_no_slash st segs : forallb (seg_ok st) segs = true -> forallb no_slash segs = true.
Proof.
  apply forallb_impl. intros s H. destruct (seg_ok_parts st s H) as [Hg _].
  destruct (good_seg_parts s Hg) as (_ & Hn & _). exact Hn.
Qed.

(* a path whose segments are non-empty does not start with "//" *)
Lemma path_no_ss segs last : forallb nonempty segs = true -> forallb no_slash segs = true -> no_slash last = true ->
  starts_with s_ss (47 :: segs_text segs ++ last) = false.
Proof.
  intros Hn Hs Hl. unfold s_ss. cbn [starts_with]. replace (47 =? 47) with true by reflexivity. cbn [andb].
  destruct segs as [|s segs].
  - cbn [segs_text map concat app]. destruct last as [|c l]; [reflexivity|].
    unfold no_slash in Hl. cbn [forallb] in Hl. apply andb_true_iff in Hl. destruct Hl as [Hc _]. apply negb_true_iff in Hc.
    rewrite N.eqb_sym, Hc. reflexivity.
  - cbn [forallb] in Hn, Hs. apply andb_true_iff in Hn, Hs. destruct Hn as [Hn _]. destruct Hs as [Hs _].
    destruct s as [|c s]; [discriminate|]. unfold segs_text. cbn [map concat app].
    unfold no_slash in Hs. cbn [forallb] in Hs. apply andb_true_iff in Hs. destruct Hs as [Hc _]. apply negb_true_iff in Hc.
    rewrite N.eqb_sym, Hc. reflexivity.
Qed.

Lemma front_for_of se pre X : front_pre se pre -> starts_with s_ss X = false -> front_for se pre X.
Proof. intros [H|H] Hx; [left; exact H | right; split; assumption]. Qed.

Lemma forallb_app_r {A} (f : A -> bool) a b : forallb f (a ++ b) = true -> forallb f b = true.
Proof. rewrite forallb_app. intros H. apply andb_true_iff in H. tauto. Qed.

(* the scheme test of MR_ok (class 42) is the test the parser makes on the emitted text *)
Lemma rp_no_scheme ra rb blast tlast rest :
  (ra = [] -> has_scheme_b (match rb with s :: _ => s | [] => if list_eqb blast tlast then [] else tlast end) = false) ->
  (ra <> [] \/ rb <> [] \/ (tlast <> [] /\ list_eqb blast tlast = false)) -> sep_head rest ->
  has_scheme_b ((dots_text ra ++ segs_text rb ++ tlast) ++ rest) = false.
Proof.
  intros F2 Hsome Hrest. destruct ra as [|a ra']; [|reflexivity].
  specialize (F2 eq_refl). destruct rb as [|s rb'].
  - destruct Hsome as [H|[H|[_ El]]]; try (exfalso; apply H; reflexivity). rewrite El in F2.
    cbn [dots_text segs_text map concat app]. apply has_scheme_app; assumption.
  - unfold segs_text. cbn [dots_text map concat app]. rewrite <- !app_assoc. cbn [app].
    apply has_scheme_app; [exact F2 | left; reflexivity].
Qed.

(* the reference in closed form *)
Section Reference.
Variables (dbg : bool) (pre : list N) (se ue hs he : N) (hi : host_internal) (po : option N).
Variables (bsegs : list (list N)) (blast : list N) (bq bf : option (list N)).
Variables (tsegs : list (list N)) (tlast : list N) (tq tf : option (list N)).
Notation b := (hier_url pre se ue hs he hi po bsegs blast bq bf).
Notation t := (hier_url pre se ue hs he hi po tsegs tlast tq tf).

(* inside MR_ok the answer of make_relative is  k "../", the target's segments below the common directory, its last
   segment, query and fragment;  common ++ ra and common ++ rb are the two directory parts *)
Lemma mr_reference r : front_pre se pre ->
  forallb no_slash bsegs = true -> no_slash blast = true -> forallb no_slash tsegs = true -> no_slash tlast = true ->
  mr_ok b t = true -> make_relative dbg b t = Some (Some r) ->
  exists common ra rb, bsegs = common ++ ra /\ tsegs = common ++ rb
    /\ forallb nonempty ra = true /\ forallb nonempty tsegs = true
    /\ forallb not_wdl_seg ra = true
    /\ (st_is_file (scheme_type_of (nfirstn se pre)) = true -> starts_with_wdl blast = false)
    /\ (ra = [] -> rb = [] -> list_eqb blast tlast = false -> tlast = [] -> bsegs = [])
    /\ (ra = [] -> has_scheme_b (match rb with s :: _ => s | [] => if list_eqb blast tlast then [] else tlast end) = false)
    /\ (ra = [] -> rb = [] -> list_eqb blast tlast = true -> tq = None -> bq = None)
    /\ r = rel_path_text ra rb blast tlast ++ qf_text tq tf.
Proof.
  intros Hfa Hbs Hbl Htn Htln Hok Hmr.
  destruct (mr_ok_hier pre se ue hs he hi po se ue hs he hi po bsegs blast bq bf tsegs tlast tq tf
              (hier_cbb _ _ _ _ _ _ _ _ _ _ _ Hfa) (hier_cbb _ _ _ _ _ _ _ _ _ _ _ Hfa) Hbs Hbl Htn Htln Hok)
    as (Nb & Nt & Hw & Hrest).
  destruct (skip_common_split bsegs tsegs) as (common & ra & rb & Eb & Et & Es).
  destruct (Hrest ra rb Es) as (F1 & F2 & F3). clear Hrest.
  rewrite hier_b_scheme in Hw by exact Hfa. rewrite Es in Hw. cbn [fst] in Hw.
  assert (forallb nonempty ra = true) as Nra by (rewrite Eb in Nb; exact (forallb_app_r _ _ _ Nb)).
  assert (forallb nonempty rb = true) as Nrb by (rewrite Et in Nt; exact (forallb_app_r _ _ _ Nt)).
  exists common, ra, rb. repeat (split; [assumption|]). split; [|split].
  - (* for a file URL the drive-letter test of MR_ok (class 45) covers all segments, otherwise just ra *)
    apply forallb_forall. intros x Hx. unfold not_wdl_seg. rewrite wdl_snoc. apply negb_true_iff.
    apply (existsb_false_forall _ _ Hw). destruct (st_is_file (scheme_type_of (nfirstn se pre))); [|exact Hx].
    apply in_or_app. left. right. rewrite Eb. apply in_or_app. right. exact Hx.
  - intros Hf. rewrite Hf in Hw. apply (existsb_false_forall _ _ Hw).
    apply in_or_app. right. apply in_or_app. right. left. reflexivity.
  - repeat (split; [assumption|]).
    destruct (make_relative_inv dbg _ _ r _ _ _ _ Hmr
                (hier_path pre se ue hs he hi po bsegs blast bq bf) (hier_path pre se ue hs he hi po tsegs tlast tq tf)
                (hier_query pre se ue hs he hi po tsegs tlast tq tf dbg) (hier_fragment pre se ue hs he hi po tsegs tlast tq tf dbg))
      as (eb & et & Eeb & Eet & Er).
    rewrite extract_path_text in Eeb, Eet by assumption.
    destruct (char_boundary_1 (47 :: blast)); [|discriminate]. destruct (char_boundary_1 (47 :: tlast)); [|discriminate].
    inversion Eeb; subst eb. inversion Eet; subst et. cbn [fst snd] in Er.
    rewrite (mr_path_part_hier bsegs blast tsegs tlast ra rb Hbs Htn Es Nra Nrb) in Er. exact Er.
Qed.
End Reference.

Section Law.
Variables (dbg : bool) (hp hpo : list N -> result host) (hd : host -> list N).
Notation join b input := (parse_url dbg hp hpo hd None (Some b) input).

(* the target has the path of the base: the reference is  ["?" q]["#" f]  - whatever the scheme *)
Lemma join_same_path pre se ue hs he hi po segs last bq bf tq tf :
  front_pre se pre ->
  opt_clean (query_set (scheme_type_of (nfirstn se pre))) tq -> opt_clean T_FRAGMENT tf ->
  opt_le (qf_qs (nlen (pre ++ path_text segs last)) tq) U32_MAX_P ->
  opt_le (qf_fs (nlen (pre ++ path_text segs last)) tq tf) U32_MAX_P ->
  (tq = None -> bq = None) ->
  join (hier_url pre se ue hs he hi po segs last bq bf) (qf_text tq tf)
  = POk (hier_url pre se ue hs he hi po segs last tq tf).
Proof.
  intros Hfa Hq Hf Bq Bf F3.
  pose proof (fun q => hier_cbb pre se ue hs he hi po segs last q bf Hfa) as Hcb.
  destruct tq as [x|].
  - set (b := hier_url pre se ue hs he hi po segs last bq bf). specialize (Hcb bq).
    pose proof (join_rel_query dbg hp hpo hd b x tf) as J. cbv zeta in J.
    unfold b_st in J. unfold b in J at 2. rewrite hier_b_scheme in J by exact Hfa.
    assert (b_before_query b = pre ++ path_text segs last) as Hbq by (unfold b; apply hier_before_query).
    rewrite Hbq in J. cbn [qf_qs opt_le] in Bq. rewrite (J Hcb Hq Hf Bq Bf). reflexivity.
  - rewrite (F3 eq_refl). set (b := hier_url pre se ue hs he hi po segs last None bf). specialize (Hcb None).
    destruct tf as [y|].
    + cbn [qf_text qf_qtext qf_ftext app].
      assert (forallb above_space (35 :: y) = true) as Hab
        by (cbn [forallb]; rewrite (clean_forallb _ _ y kept_FRAGMENT_above Hf); reflexivity).
      rewrite (join_frag dbg hp hpo hd b (35 :: y) y).
      * unfold with_fragment, b. rewrite hier_before_fragment.
        rewrite utf8_encode_ascii by (apply (clean_ascii T_FRAGMENT); exact Hf).
        rewrite encode_clean by exact Hf. unfold hier_url, url_with, qf_text. cbn [qf_qtext qf_ftext qf_qs qf_fs app].
        rewrite !app_nil_r. change (nlen []) with 0. rewrite N.add_0_r. reflexivity.
      * apply ascii_usv. constructor; [unfold is_ascii; lia | apply (clean_ascii T_FRAGMENT); exact Hf].
      * unfold ref_text. rewrite trim_c0_id by (apply all_above_edge; exact Hab).
        change (filter (fun c => negb (is_tnl c)) (35 :: y)) with (ntnl (35 :: y)). apply above_ntnl. exact Hab.
      * unfold b. rewrite hier_before_fragment. cbn [qf_qtext]. rewrite app_nil_r.
        cbn [qf_fs qf_qtext opt_le] in Bf. change (nlen []) with 0 in Bf. lia.
    + cbn [qf_text qf_qtext qf_ftext app].
      rewrite (join_empty dbg hp hpo hd b [] Hcb eq_refl).
      unfold without_fragment, b. rewrite hier_before_fragment. reflexivity.
Qed.

Theorem relative_hier pre se ue hs he hi po bsegs blast bq bf tsegs tlast tq tf r :
  rel_ok pre se bsegs blast tsegs tlast tq tf ->
  mr_ok (hier_url pre se ue hs he hi po bsegs blast bq bf) (hier_url pre se ue hs he hi po tsegs tlast tq tf) = true ->
  make_relative dbg (hier_url pre se ue hs he hi po bsegs blast bq bf)
                    (hier_url pre se ue hs he hi po tsegs tlast tq tf) = Some (Some r) ->
  join (hier_url pre se ue hs he hi po bsegs blast bq bf) r
  = POk (hier_url pre se ue hs he hi po tsegs tlast tq tf).
Proof.
  intros K Hok Hmr. destruct K as [Hfa Hnf Hbs Hbl Hts Htl Hq Hf Bq Bf].
  set (st := scheme_type_of (nfirstn se pre)) in *.
  pose proof (segs_ok_no_slash st tsegs Hts) as Htn.
  destruct (good_seg_parts tlast (proj1 (seg_ok_parts st tlast Htl))) as (_ & Htln & _).
  destruct (mr_reference dbg pre se ue hs he hi po bsegs blast bq bf tsegs tlast tq tf r Hfa Hbs Hbl Htn Htln Hok Hmr)
    as (common & ra & rb & -> & -> & Nra & Nt & Hwra & _ & F1 & F2 & F3 & ->).
  clear Hmr Hok.
  set (b := hier_url pre se ue hs he hi po (common ++ ra) blast bq bf).
  assert (b_st b = st) as Hbst by (unfold b_st, b; rewrite hier_b_scheme by exact Hfa; reflexivity).
  assert (cannot_be_a_base b = Some false) as Hcb by (apply hier_cbb; exact Hfa).
  apply rel_path_text_cases.
  - (* a path part: the relative-path arm of parse_relative *)
    intros Hsome.
    pose proof (forallb_app_r _ _ _ Nt) as Nrb. pose proof (forallb_app_r _ _ _ Hts) as Hrb.
    destruct (rp_head st ra rb tlast Nrb Hrb Htl) as (c & rp' & Erp & Hc & Hcbs); [tauto|].
    pose proof (join_rel_path dbg hp hpo hd b pre common ra rb blast tlast tq tf c rp') as J.
    rewrite Hbst in J. rewrite <- (Bs_path pre (common ++ rb) tlast) in J.
    assert (b_before_query b = Bs pre (common ++ ra) ++ blast) as Hbq
      by (unfold b; rewrite hier_before_query; apply Bs_path).
    assert (front_for se pre (47 :: segs_text (common ++ rb) ++ tlast)) as Hff
      by (apply front_for_of; [exact Hfa | apply path_no_ss; assumption]).
    pose proof (rp_no_scheme ra rb blast tlast _ F2 Hsome (qf_text_sep tq tf)) as Hsch.
    rewrite (J eq_refl Hbq Hcb Hnf Hff Hbl (forallb_app_r _ _ _ Hbs) Hwra Hrb Htl Hq Hf Erp Hc Hcbs Hsch Bq Bf).
    reflexivity.
  - (* "/" below the root *)
    intros -> -> -> El. subst b. rewrite app_nil_r in *. rewrite (F1 eq_refl eq_refl El eq_refl) in *.
    pose proof (join_rel_root dbg hp hpo hd (hier_url pre se ue hs he hi po [] blast bq bf) pre tq tf) as J.
    rewrite Hbst in J. cbn [app].
    rewrite (J eq_refl (hier_pre_of pre se ue hs he hi po [] blast bq bf) Hcb Hnf
               (front_for_of se pre [47] Hfa eq_refl) Hq Hf Bq Bf).
    reflexivity.
  - intros -> -> El. specialize (F3 eq_refl eq_refl El). apply list_eqb_spec in El. subst tlast b.
    rewrite app_nil_r in *. apply join_same_path; assumption.
Qed.

End Law.
