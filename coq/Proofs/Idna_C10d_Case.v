(* Proofs/Idna_C10d_Case.v - ToASCII does not see the case of ASCII letters (C10), every input, every option combination.
   c10_case3 : C10_case_statement2 A cfg (Proofs/Idna_C10b_Stmt.v): premises AdapterOK (fields ok_nil, ok_case) and
   PassBidi (the bidi rule accepts every pass-through label), both sampled on the real idna_adapter.
   Proof: the accepted run on d is read through the virtual run proc_all (split_on DOT d) (Proofs/Idna_C10d_CaseLoop.v):
     accept_inv  the result text is join_dots (outs (labels of the virtual buffer) (virtual entries)), the virtual
                 buffer passes the bidi pass (VB; PassBidi is used for the labels the real run passed through);
     proc_all_cv the virtual run on the case variant d' has the same buffer and entries that differ by case only;
     accept_syn  a name whose virtual run is accepted in this sense is accepted by to_ascii with that text
                 (its own pass-through prefix may be longer or shorter).
   The premises hold for the adapter lowsan, and a pair of case variants with different pass-through prefixes goes
   through: lowsan_pass_bidi, w_case3 (Proofs/Idna_C10d_PassBidi.v). *)
From RU Require Import Base.Prelude Base.Utf8 Base.U32_c13 Gen.Tables Model.Punycode Model.Uts46
  Proofs.Idna_Sim Proofs.Idna_Api Proofs.Idna_Known Proofs.Idna_Hyp Proofs.Idna_Redisc
  Proofs.Idna_C10_Deny Proofs.Idna_C10_Prefix Proofs.Idna_C10_Inner Proofs.Idna_C10_Walk
  Proofs.Idna_C10b_AsciiInner Proofs.Idna_C10b_AsciiWalk Proofs.Idna_C10b_Stmt Proofs.Idna_WalkInv Proofs.Idna_WalkEnc Proofs.Idna_WalkFun
  Proofs.Idna_WalkApi Proofs.Idna_C10c_Puny Proofs.Idna_C10c_Start Proofs.Idna_C10c_Drun Proofs.Idna_C10c_Loop Proofs.Idna_C10c_Rerun
  Proofs.Idna_C10c_Idem Proofs.Idna_Mark Proofs.Idna_C10d_CaseLabel Proofs.Idna_C10d_CaseLoop.

Lemma to_ascii_dns_eq A cfg x deny hy dns :
  to_ascii A cfg x deny hy dns =
  match to_ascii A cfg x deny hy DIgnore with
  | Ok (b, s) => if negb (dns_is_ignore dns)
                 then (if cfg && negb (is_ascii_l s) then Panic 468
                       else if negb (verify_dns_length s (dns_is_root dns)) then Err else Ok (b, s))
                 else Ok (b, s)
  | Err => Err
  | Panic p => Panic p
  end.
Proof.
  unfold to_ascii. destruct (process A cfg true never_unicode x deny hy None None false) as [[st s1] s2].
  destruct st; cbn [dns_is_ignore negb]; reflexivity.
Qed.

Lemma concat_ascii (pl : list (list N)) : Forall (Forall (fun b => b < 128)) pl -> Forall (fun b => b < 128) (concat pl).
Proof. induction 1 as [|l r Hl _ IH]; [constructor|]. cbn [concat]. apply Forall_app. split; assumption. Qed.

Section Case.
Variable A : adapter.
Variable cfg : bool.
Variable deny : N.
Variable hy : hyphens.
Hypothesis HU : DenyUpper deny.
Hypothesis HL : LdhFree deny.
Hypothesis HR : Redisc A cfg deny.
Hypothesis HPB : PassBidi A.

Notation proc_all := (proc_all A cfg deny hy).
Definition BOKl (l : list N) : Prop := bidi_label A true l false = SOk (l, false).
Definition VB (Ys : list (list N)) : Prop :=
  exists bd, is_bidi A cfg (concat Ys) = Ok bd /\ (bd = true -> Forall BOKl (VL Ys)).

Lemma pass_all_ascii pl : Forall PassL pl -> Forall (fun b => b < 128) (concat pl).
Proof.
  intros H. apply concat_ascii. eapply Forall_impl; [|exact H]. intros l [Hb Hp]. exact (passthrough_ascii l Hb Hp).
Qed.
Lemma pass_all_nodot pl : Forall PassL pl -> Forall nodot pl.
Proof. intros H. eapply Forall_impl; [|exact H]. intros l. apply pass_nodot. Qed.
Lemma pass_all_lower pl : Forall PassL pl -> map (map to_lower) pl = pl.
Proof. induction 1 as [|l r Hl _ IH]; [reflexivity|]. cbn [map]. rewrite IH, (pass_lower deny l HU HL Hl). reflexivity. Qed.
Lemma pass_all_bok pl : Forall PassL pl -> Forall BOKl pl.
Proof. intros H. eapply Forall_impl; [|exact H]. intros l [Hb Hp]. exact (HPB l false Hb Hp). Qed.

(* the shape of a name: its leading pass-through labels, then the others *)
Lemma run_shape d : bytes d ->
  Forall PassL (ptake (split_on DOT d)) /\
  ((pdrop (split_on DOT d) = [] /\ ptake (split_on DOT d) = split_on DOT d) \/
   exists l rest, pdrop (split_on DOT d) = l :: rest /\
     d = ptext (ptake (split_on DOT d)) ++ join_dots (l :: rest) /\ len (ptext (ptake (split_on DOT d))) < len d).
Proof.
  intros Hb. pose proof (ptake_pdrop (split_on DOT d)) as E.
  assert (Hbl : Forall bytes (split_on DOT d)) by (apply split_on_Forall; exact Hb).
  assert (Hp : Forall PassL (ptake (split_on DOT d))).
  { rewrite <- E in Hbl. apply Forall_app in Hbl. destruct Hbl as [Hb1 _]. pose proof (ptake_pass (split_on DOT d)) as Hpp.
    revert Hb1 Hpp. generalize (ptake (split_on DOT d)). intros pl. induction pl as [|x xs IH]; intros H1 H2; [constructor|].
    inversion H1; inversion H2; subst. constructor; [split; assumption|apply IH; assumption]. }
  split; [exact Hp|]. destruct (pdrop (split_on DOT d)) as [|l rest] eqn:Ed.
  - left. split; [reflexivity|]. rewrite app_nil_r in E. exact E.
  - right. exists l, rest. split; [reflexivity|].
    assert (Hd : d = ptext (ptake (split_on DOT d)) ++ join_dots (l :: rest)).
    { pose proof (ptext_join (ptake (split_on DOT d)) (l :: rest) ltac:(discriminate)) as X. rewrite E, join_split in X. exact X. }
    split; [exact Hd|]. rewrite Hd at 2. rewrite len_app.
    assert (Hl : l <> []) by (intros ->; pose proof (pdrop_head _ _ _ Ed) as Hx; discriminate Hx).
    assert (0 < len (join_dots (l :: rest))).
    { rewrite join_dots_cons, len_app. destruct l as [|c t]; [contradiction Hl; reflexivity|]. rewrite len_cons1. lia. }
    lia.
Qed.

Lemma to_ascii_exit d : d <> [] -> process_inner A cfg true hy deny d = I_EXIT -> to_ascii A cfg d deny hy DIgnore = Err.
Proof.
  intros Hne Hi. unfold to_ascii, process. rewrite Hi. unfold I_EXIT.
  destruct (0 =? len d) eqn:E; [apply len_nil_iff in E; contradiction|]. reflexivity.
Qed.
Lemma to_ascii_ipanic d p : process_inner A cfg true hy deny d = IPanic p -> to_ascii A cfg d deny hy DIgnore = Panic p.
Proof. intros Hi. unfold to_ascii, process. rewrite Hi. reflexivity. Qed.

(* to_ascii on the walking branch, from the fail-fast result *)
Lemma to_ascii_text d pl l rest bd db ap : bytes d ->
  d = ptext pl ++ join_dots (l :: rest) -> len (ptext pl) < len d ->
  process_inner A cfg true hy deny d = IRes (len (ptext pl)) bd false db ap ->
  length (split_on DOT db) = length ap /\
  match outs cfg is_ascii_l (split_on DOT db) ap with
  | inl os => exists b, to_ascii A cfg d deny hy DIgnore = Ok (b, ptext pl ++ join_dots os)
  | inr s => to_ascii A cfg d deny hy DIgnore = Panic s
  end.
Proof.
  intros Hb Hd Hlt Ei.
  destruct (inner_facts A cfg true hy deny d _ _ _ _ _ Hb Ei) as [(_ & Hx & _)|[(Hx & _)|[HB Hm]]]; [discriminate|lia|].
  pose proof HB as HB'. destruct HB' as (_ & Hlen & _ & _ & _ & P & rl & Hd2 & HP & Hcv & _). split; [exact Hlen|].
  pose proof (to_ascii_walk A cfg d deny hy _ _ _ _ HR Hm HB P rl Hd2 HP Hcv) as HW.
  assert (HPe : P = ptext pl) by (apply (app_eq_len P (join_dots rl) (ptext pl) (join_dots (l :: rest))); [rewrite <- Hd2; exact Hd|exact HP]).
  subst P. destruct (outs cfg is_ascii_l (split_on DOT db) ap) as [os|s]; [|exact HW].
  destruct (stays is_ascii_l (split_on DOT db) ap).
  - destruct HW as [HW1 HW2]. exists true. rewrite HW1. exact HW2.
  - exists false. exact HW.
Qed.

Theorem accept_inv d b r : bytes d -> to_ascii A cfg d deny hy DIgnore = Ok (b, r) ->
  exists Ys Fss ov, proc_all (split_on DOT d) = SOk (Ys, Fss) /\ VB Ys /\
    outs cfg is_ascii_l (VL Ys) (concat Fss) = inl ov /\ r = join_dots ov.
Proof.
  intros Hb H. pose proof (inner_closed A cfg deny hy HR d Hb) as Hic.
  destruct (run_shape d Hb) as [Hpl [[Ed Epl]|(l & rest & Ed & Hd & Hlt)]].
  - rewrite Ed in Hic. rewrite Epl in Hpl.
    assert (Hr : to_ascii A cfg d deny hy DIgnore = Ok (true, d)).
    { unfold to_ascii, process. rewrite Hic, N.eqb_refl, andb_false_r. reflexivity. }
    rewrite Hr in H. inversion H. subst b r.
    exists (split_on DOT d), (map (fun l => [MixedCaseAscii l]) (split_on DOT d)), (split_on DOT d).
    split; [exact (proc_all_pass A cfg deny hy HL _ Hpl)|]. split.
    + exists false. split; [exact (is_bidi_ascii A cfg _ (pass_all_ascii _ Hpl))|discriminate].
    + split; [|symmetry; apply join_split].
      rewrite (VL_nodot _ (pass_all_nodot _ Hpl)), concat_mca.
      pose proof (outs_mca cfg is_ascii_l [] [] (split_on DOT d) (split_on DOT d) eq_refl) as E.
      rewrite !app_nil_r in E. rewrite E. cbn [outs]. rewrite app_nil_r, (pass_all_lower _ Hpl). reflexivity.
  - set (pl := ptake (split_on DOT d)) in *. rewrite Ed in Hic.
    assert (Hdne : d <> []) by (intros ->; unfold len in Hlt; cbn [length] in Hlt; lia).
    destruct (proc_all (l :: rest)) as [[Xs Ess]| |p] eqn:Ep;
      [|rewrite (to_ascii_exit d Hdne Hic) in H; discriminate|rewrite (to_ascii_ipanic d p Hic) in H; discriminate].
    assert (HXne : Xs <> []).
    { destruct (proc_all_len A cfg deny hy _ _ _ Ep) as [Hx _]. intros ->. discriminate Hx. }
    (* the bidi pass *)
    assert (HF : exists bd, is_bidi A cfg (join_dots Xs) = Ok bd /\ (bd = true -> Forall BOKl (split_on DOT (join_dots Xs))) /\
                   process_inner A cfg true hy deny d = IRes (len (ptext pl)) bd false (join_dots Xs) (concat Ess)).
    { unfold finish in Hic. destruct (is_bidi A cfg (join_dots Xs)) as [[|]| |p] eqn:Eb;
        [| |rewrite (to_ascii_ipanic d 0 Hic) in H; discriminate|rewrite (to_ascii_ipanic d p Hic) in H; discriminate].
      - destruct (bidi_labels A true (split_on DOT (join_dots Xs)) false) as [[ls2 he2]| |p] eqn:Ebl;
          [|rewrite (to_ascii_exit d Hdne Hic) in H; discriminate|rewrite (to_ascii_ipanic d p Hic) in H; discriminate].
        pose proof (bidi_labels_true A _ _ _ _ Ebl) as ->. destruct (bidi_labels_all A _ _ _ _ Ebl) as [-> HB].
        rewrite join_split in Hic. exists true. split; [reflexivity|]. split; [intros _; exact HB|exact Hic].
      - exists false. split; [reflexivity|]. split; [discriminate|exact Hic]. }
    destruct HF as (bd & Hbd & Hbok & Ei).
    destruct (to_ascii_text d pl l rest bd _ _ Hb Hd Hlt Ei) as [Hlen HT].
    destruct (outs cfg is_ascii_l (split_on DOT (join_dots Xs)) (concat Ess)) as [os|s] eqn:Eo; [|rewrite HT in H; discriminate].
    destruct HT as (b0 & HT). rewrite HT in H. inversion H. subst b0 r.
    assert (Hos : os <> []).
    { pose proof (outs_len cfg is_ascii_l _ _ _ Eo Hlen) as Hl. intros ->. cbn [length] in Hl.
      pose proof (Idna_WalkApi.split_on_ne (join_dots Xs)) as Hn. destruct (split_on DOT (join_dots Xs)); [congruence|discriminate]. }
    exists (pl ++ Xs), (map (fun l => [MixedCaseAscii l]) pl ++ Ess), (pl ++ os).
    split; [|split; [|split]].
    + rewrite <- (ptake_pdrop (split_on DOT d)), Ed. fold pl. rewrite proc_all_app, (proc_all_pass A cfg deny hy HL _ Hpl), Ep. reflexivity.
    + exists bd. split.
      * rewrite concat_app, is_bidi_app, (is_bidi_ascii A cfg _ (pass_all_ascii _ Hpl)), <- is_bidi_join. exact Hbd.
      * intros Hb1. rewrite VL_app, (VL_nodot _ (pass_all_nodot _ Hpl)), <- (split_join_gen Xs HXne).
        apply Forall_app. split; [exact (pass_all_bok _ Hpl)|exact (Hbok Hb1)].
    + rewrite VL_app, (VL_nodot _ (pass_all_nodot _ Hpl)), concat_app, concat_mca, (outs_mca cfg is_ascii_l _ _ pl pl eq_refl).
      rewrite <- (split_join_gen Xs HXne), Eo, (pass_all_lower _ Hpl). reflexivity.
    + symmetry. apply ptext_join. exact Hos.
Qed.

Theorem accept_syn d Ys Fss ov : bytes d -> proc_all (split_on DOT d) = SOk (Ys, Fss) -> VB Ys ->
  outs cfg is_ascii_l (VL Ys) (concat Fss) = inl ov -> exists b, to_ascii A cfg d deny hy DIgnore = Ok (b, join_dots ov).
Proof.
  intros Hb Hp (bd & Hbd & Hbok) Ho. pose proof (inner_closed A cfg deny hy HR d Hb) as Hic.
  destruct (run_shape d Hb) as [Hpl [[Ed Epl]|(l & rest & Ed & Hd & Hlt)]].
  - rewrite Ed in Hic. rewrite Epl in Hpl. exists true.
    rewrite (proc_all_pass A cfg deny hy HL _ Hpl) in Hp. inversion Hp. subst Ys Fss.
    rewrite (VL_nodot _ (pass_all_nodot _ Hpl)), concat_mca in Ho.
    pose proof (outs_mca cfg is_ascii_l [] [] (split_on DOT d) (split_on DOT d) eq_refl) as E.
    rewrite !app_nil_r in E. rewrite E in Ho. cbn [outs] in Ho. rewrite app_nil_r, (pass_all_lower _ Hpl) in Ho. inversion Ho. subst ov.
    rewrite join_split. unfold to_ascii, process. rewrite Hic, N.eqb_refl, andb_false_r. reflexivity.
  - set (pl := ptake (split_on DOT d)) in *. rewrite Ed in Hic.
    rewrite <- (ptake_pdrop (split_on DOT d)), Ed in Hp. fold pl in Hp.
    rewrite proc_all_app, (proc_all_pass A cfg deny hy HL _ Hpl) in Hp.
    destruct (proc_all (l :: rest)) as [[Xs Ess]| |p] eqn:Ep; try discriminate. inversion Hp. subst Ys Fss. clear Hp.
    assert (HXne : Xs <> []).
    { destruct (proc_all_len A cfg deny hy _ _ _ Ep) as [Hx _]. intros ->. discriminate Hx. }
    rewrite concat_app, is_bidi_app, (is_bidi_ascii A cfg _ (pass_all_ascii _ Hpl)), <- is_bidi_join in Hbd.
    rewrite VL_app, (VL_nodot _ (pass_all_nodot _ Hpl)), <- (split_join_gen Xs HXne) in Hbok.
    assert (Ei : process_inner A cfg true hy deny d = IRes (len (ptext pl)) bd false (join_dots Xs) (concat Ess)).
    { rewrite Hic. unfold finish. rewrite Hbd. destruct bd; [|reflexivity].
      specialize (Hbok eq_refl). apply Forall_app in Hbok. destruct Hbok as [_ Hbok].
      rewrite (bidi_labels_ok A _ Hbok), join_split. reflexivity. }
    destruct (to_ascii_text d pl l rest bd _ _ Hb Hd Hlt Ei) as [Hlen HT].
    rewrite VL_app, (VL_nodot _ (pass_all_nodot _ Hpl)), concat_app, concat_mca, (outs_mca cfg is_ascii_l _ _ pl pl eq_refl) in Ho.
    rewrite <- (split_join_gen Xs HXne) in Ho.
    destruct (outs cfg is_ascii_l (split_on DOT (join_dots Xs)) (concat Ess)) as [os|s] eqn:Eo; [|discriminate].
    inversion Ho. subst ov. rewrite (pass_all_lower _ Hpl).
    assert (Hos : os <> []).
    { pose proof (outs_len cfg is_ascii_l _ _ _ Eo Hlen) as Hl. intros ->. cbn [length] in Hl.
      pose proof (Idna_WalkApi.split_on_ne (join_dots Xs)) as Hn. destruct (split_on DOT (join_dots Xs)); [congruence|discriminate]. }
    destruct HT as (b0 & HT). exists b0. rewrite (ptext_join pl os Hos). exact HT.
Qed.

Hypothesis Hcase : forall l l', ascii_case_variant l l' -> map_normalize A l = map_normalize A l'.

Lemma split_cv_all d d' : cv d d' -> Forall2 cv (split_on DOT d) (split_on DOT d').
Proof.
  intros H. pose proof (split_on_map_lower d) as E1. pose proof (split_on_map_lower d') as E2. unfold cv in H. rewrite H, E2 in E1.
  revert E1. generalize (split_on DOT d) (split_on DOT d'). intros ls. induction ls as [|x xs IH]; intros [|y ys] E; try discriminate; [constructor|].
  cbn [map] in E. inversion E. constructor; [unfold cv; congruence|apply IH; assumption].
Qed.

Theorem to_ascii_case_ignore d d' b r : bytes d -> cv d d' ->
  to_ascii A cfg d deny hy DIgnore = Ok (b, r) -> exists b', to_ascii A cfg d' deny hy DIgnore = Ok (b', r).
Proof.
  intros Hb Hcv H. destruct (accept_inv d b r Hb H) as (Ys & Fss & ov & Hp & HVB & Ho & ->).
  assert (Hbl : Forall bytes (split_on DOT d)) by (apply split_on_Forall; exact Hb).
  destruct (proc_all_cv A cfg deny hy HU HL Hcase _ _ (split_cv_all d d' Hcv) Hbl _ _ Hp) as (Fss' & Hp' & He).
  apply (accept_syn d' Ys Fss' ov (cv_bytes d d' Hcv Hb) Hp' HVB). rewrite (outs_ecase cfg is_ascii_l _ _ _ He). exact Ho.
Qed.
End Case.

Theorem c10_case3 : forall A cfg, C10_case_statement2 A cfg.
Proof.
  intros A cfg HOK HPB d d' deny hy dns b r Hb Hv Hcv H.
  destruct (valid_deny_facts deny Hv) as [HU HL].
  pose proof (redisc_of_adapter A cfg deny (ok_nil A HOK) HU) as HR.
  rewrite to_ascii_dns_eq in H. rewrite to_ascii_dns_eq.
  destruct (to_ascii A cfg d deny hy DIgnore) as [[b0 s]| |p] eqn:E0; try discriminate.
  destruct (to_ascii_case_ignore A cfg deny hy HU HL HR HPB (ok_case A HOK) d d' b0 s Hb Hcv E0) as (b' & E').
  rewrite E'. destruct (negb (dns_is_ignore dns)).
  - destruct (cfg && negb (is_ascii_l s)); [discriminate|]. destruct (negb (verify_dns_length s (dns_is_root dns))); [discriminate|].
    inversion H. subst. exists b'. reflexivity.
  - inversion H. subst. exists b'. reflexivity.
Qed.

