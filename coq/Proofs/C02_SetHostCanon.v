(* Proofs/C02_SetHostCanon.v - L2 for the host setters on the canonical forms.
   Url::set_ip_host and Url::set_host(Some _) on a Canon record outside the known step classes give a Canon record:
   - opaque path: the setters refuse (cannot-be-a-base), the record is unchanged;
   - no authority, no "/." marker (F-C03-5 excluded): "//" host is inserted, the result is the canonical record with
     authority, empty userinfo, no port and the same path;
   - authority (either scheme kind): the host text is replaced.
   The host the setter stores is the value of the host parser of the scheme kind (set_host) resp. the IP value
   (set_ip_host; IPv4 on a non-special scheme is F-C02-9, excluded), hence canonical by HostRT / ip_clause.
   One more hypothesis on the host functions is needed, host_nonempty: only the empty text parses to the empty host
   (true of url::Host - Model/Host.v - but not a consequence of HostOK2: with a host parser that read "x" as the empty
   host, a://u@h/ -> set_host("x") would give a://u@/, outside F-C02-4 and not a fixpoint). *)
From RU Require Import Base.Prelude Base.Utf8 Base.Utf8Facts Model.AsciiSet Gen.Tables
  Model.PercentEncoding Model.HostT Model.UrlRecord Model.Parser Model.Setters Model.WF
  Proofs.ListN Proofs.C14_Set Proofs.C14_Enc Proofs.C14_Views Proofs.C02_Enc Proofs.C02_Parts
  Proofs.C02_Opaque Proofs.C02_Path Proofs.C02_PathL1 Proofs.C02_Reach Proofs.C16_RT Proofs.C02_AuthParts
  Proofs.C02_Auth Proofs.C02_AuthWf Proofs.C02_PathSp Proofs.C02_AuthSp Proofs.C02_AuthMain Proofs.C02_SetQF
  Proofs.C02_Canon Proofs.C02_SetPort Proofs.C02_Hist Proofs.C02_SetHostFrame.
Open Scope N_scope.
Open Scope list_scope.

Definition host_nonempty (hp hpo : list N -> result host) : Prop :=
  (forall s, hp s <> Ok (HDomain [])) /\ (forall s, usv_list s -> hpo s = Ok (HDomain []) -> s = []).

Lemma usv_nfirstn n l : usv_list l -> usv_list (nfirstn n l).
Proof. intros H. rewrite <- (nfirstn_nskipn n l) in H. apply usv_app in H. tauto. Qed.

Section HostCanon.
Variable dbg : bool.
Variable hp hpo : list N -> result host.
Variable hd : host -> list N.
Hypothesis HRT : HostRT hp hpo hd.
Hypothesis HAb : host_above hp hpo hd.

Notation auth_ok := (auth_ok hp hpo hd).
Notation auth_url := (auth_url hd).
Notation auth_ser := (auth_ser hd).
Notation host_ok := (host_ok hp hpo hd).
Notation Canon := (Canon hp hpo hd).

Lemma auth_ok_host st sch ui h pt p q f h' pt' : auth_ok st sch ui h pt p q f ->
  host_ok st h' -> (h' = HDomain [] -> ui = UNone /\ pt' = None) -> port_ok (default_port sch) pt' ->
  nlen (auth_ser sch ui h' pt' p q f) <= U32_MAX_P -> auth_ok st sch ui h' pt' p q f.
Proof.
  intros K Hh He Hpt Hb. destruct K as [Ksch Kst Kui Kh Kemp Kpt Kp Kq Kf Kb Kbq Kbf].
  destruct (qf_bounds _ _ _ _ Hb) as [B1 B2]. constructor; try assumption.
  unfold auth_ser, auth_pre in Hb. rewrite !nlen_app in Hb. lia.
Qed.

Lemma noauth_to_auth sch segs last q f h' pt' : noauth_ok sch segs last q f ->
  host_ok STNotSpecial h' -> (h' = HDomain [] -> pt' = None) -> port_ok (default_port sch) pt' ->
  nlen (auth_ser sch UNone h' pt' (Some (segs, last)) q f) <= U32_MAX_P ->
  auth_ok STNotSpecial sch UNone h' pt' (Some (segs, last)) q f.
Proof.
  intros K Hh He Hpt Hb. destruct K as [Ksch Kns Ksegs Klast Kq Kf Kb1 Kbq Kbf].
  destruct (qf_bounds _ _ _ _ Hb) as [B1 B2]. constructor; try assumption.
  - exact I.
  - intros E. split; [reflexivity | exact (He E)].
  - split; assumption.
  - unfold auth_ser, auth_pre in Hb. rewrite !nlen_app in Hb. lia.
Qed.

(* the records a host setter acts on: not cannot-be-a-base, no marker *)
Inductive hostable : url -> scheme_type -> list N -> uinfo -> option N -> Prop :=
| HB_noauth sch segs last q f : noauth_ok sch segs last q f -> starts_with s_ss (path_text segs last) = false ->
    hostable (noauth_url sch (path_text segs last) q f) STNotSpecial sch UNone None
| HB_auth sch ui h pt p q f : auth_ok STNotSpecial sch ui h pt p q f ->
    hostable (auth_url sch ui h pt p q f) STNotSpecial sch ui pt
| HB_special sch ui h pt p q f : auth_ok STSpecialNotFile sch ui h pt p q f -> pth_ok_sp p ->
    hostable (auth_url sch ui h pt p q f) STSpecialNotFile sch ui pt.

(* the two constructors for records with authority as one, and back *)
Lemma hostable_auth st sch ui h pt p q f : st_is_file st = false -> auth_ok st sch ui h pt p q f ->
  (st = STSpecialNotFile -> pth_ok_sp p) -> hostable (auth_url sch ui h pt p q f) st sch ui pt.
Proof.
  intros Hnf K Kp. destruct st; [discriminate Hnf | exact (HB_special _ _ _ _ _ _ _ K (Kp eq_refl)) | exact (HB_auth _ _ _ _ _ _ _ K)].
Qed.

Lemma hostable_cases u st sch ui pt : hostable u st sch ui pt ->
  (exists segs last q f, noauth_ok sch segs last q f /\ starts_with s_ss (path_text segs last) = false
     /\ st = STNotSpecial /\ ui = UNone /\ pt = None /\ u = noauth_url sch (path_text segs last) q f)
  \/ exists h p q f, st_is_file st = false /\ auth_ok st sch ui h pt p q f /\ (st = STSpecialNotFile -> pth_ok_sp p)
       /\ u = auth_url sch ui h pt p q f.
Proof.
  intros [sch0 segs last q f K Hm | sch0 ui0 h pt0 p q f K | sch0 ui0 h pt0 p q f K Kp].
  - left. exists segs, last, q, f. split; [exact K | split; [exact Hm | repeat split]].
  - right. exists h, p, q, f. split; [reflexivity | split; [exact K | split; [discriminate | reflexivity]]].
  - right. exists h, p, q, f. split; [reflexivity | split; [exact K | split; [intros _; exact Kp | reflexivity]]].
Qed.

Theorem shi_hostable u st sch ui pt h' onp u' : hostable u st sch ui pt -> host_ok st h' ->
  (h' = HDomain [] -> ui = UNone /\ match onp with Some np => np | None => pt end = None) ->
  port_ok (default_port sch) (match onp with Some np => np | None => pt end) ->
  set_host_internal dbg hd u h' onp = Some u' -> nlen (ser u') <= U32_MAX_P -> Canon u'.
Proof.
  intros Hu Hh He Hpt.
  destruct (hostable_cases _ _ _ _ _ Hu) as [(segs & last & q & f & K & Hm & -> & -> & -> & ->) | (h & p & q & f & Hnf & K & Kp & ->)].
  - rewrite (set_host_internal_noauth dbg hd sch segs last q f h' onp Hm). intros E Hb. inversion E; subst u'. clear E.
    apply Canon_auth. apply (noauth_to_auth sch segs last q f); try assumption.
    intros E. exact (proj2 (He E)).
  - rewrite set_host_internal_auth. intros E Hb. inversion E; subst u'. clear E.
    apply (Canon_auth_st hp hpo hd st sch ui h' _ p q f Hnf); [|exact Kp]. exact (auth_ok_host _ sch ui h pt p q f h' _ K Hh He Hpt Hb).
Qed.

(* what the setters read off such a record *)
Lemma noauth_scheme sch T q f : scheme (noauth_url sch T q f) = Some sch.
Proof.
  unfold noauth_url, noauth_ser, noauth_pre. rewrite <- !app_assoc. apply scheme_prefix.
Qed.

Lemma hostable_facts u st sch ui pt : hostable u st sch ui pt ->
  scheme u = Some sch /\ scheme_type_of sch = st /\ st_is_file st = false /\ cannot_be_a_base u = Some false
  /\ scheme_of u = sch /\ port u = pt /\ (username_end u = host_start u -> ui = UNone)
  /\ port_ok (default_port sch) pt /\ Canon u.
Proof.
  assert (forall sch ui h pt p q f, username_end (auth_url sch ui h pt p q f) = host_start (auth_url sch ui h pt p q f) -> ui = UNone) as Hui.
  { clear. intros sch ui h pt p q f. cbn [auth_url username_end host_start]. intros E. apply ui_text_nil.
    destruct ui as [|a|a b]; cbn [ui_text ui_ulen] in *; [reflexivity| |]; exfalso; rewrite ?nlen_app, ?nlen_cons, ?nlen_app in E;
      cbn [nlen length] in E; lia. }
  intros Hu.
  destruct (hostable_cases _ _ _ _ _ Hu) as [(segs & last & q & f & K & Hm & -> & -> & -> & ->) | (h & p & q & f & Hnf & K & Kp & ->)].
  - split; [apply noauth_scheme|]. split; [exact (nk_ns _ _ _ _ _ K)|]. split; [reflexivity|].
    split; [exact (proj1 (proj2 (noauth_url_wf sch segs last q f K)))|].
    split; [unfold scheme_of; cbn [noauth_url scheme_end ser]; unfold noauth_ser, noauth_pre; rewrite <- !app_assoc; apply nfirstn_app_len|].
    split; [reflexivity|]. split; [reflexivity|]. split; [exact I|]. exact (Canon_noauth hp hpo hd sch segs last q f K).
  - split; [apply auth_scheme|]. split; [exact (ak_st _ _ _ _ _ _ _ _ _ _ _ K)|]. split; [exact Hnf|].
    split; [exact (proj2 (auth_url_wf hp hpo hd HRT _ _ _ _ _ _ _ _ K))|].
    split; [unfold scheme_of; cbn [auth_url scheme_end ser]; unfold auth_ser, auth_pre; rewrite <- app_assoc; apply front_sch|].
    split; [reflexivity|]. split; [apply Hui|]. split; [exact (ak_pt _ _ _ _ _ _ _ _ _ _ _ K)|].
    exact (Canon_auth_st hp hpo hd st sch ui h pt p q f Hnf K Kp).
Qed.

(* a Canon record is cannot-be-a-base, or carries the marker, or is hostable *)
Lemma noauth_marker sch T q f : starts_with [47] T = true -> has_marker (noauth_url sch T q f) = starts_with s_ss T.
Proof.
  intros HT. unfold has_marker, has_authority_b. cbn [noauth_url ser scheme_end path_start]. unfold noauth_ser, noauth_pre, marker_of.
  rewrite <- !app_assoc. rewrite nskipn_app_len.
  destruct T as [|c T]; [cbn in HT; discriminate HT|]. cbn [starts_with] in HT. rewrite andb_true_r in HT. apply N.eqb_eq in HT. subst c.
  destruct (starts_with s_ss (47 :: T)) eqn:Es.
  - cbn [app starts_with s_css]. rewrite nlen_app. change (nlen [58]) with 1. change (nlen [47; 46]) with 2.
    replace (nlen sch + 1 + 2 =? nlen sch + 3) with true by lia. reflexivity.
  - cbn [app]. rewrite nlen_app. change (nlen [58]) with 1. change (nlen []) with 0.
    replace (nlen sch + 1 + 0 =? nlen sch + 3) with false by lia. apply andb_false_r.
Qed.

Lemma Canon_classes u : Canon u ->
  cannot_be_a_base u = Some true \/ has_marker u = true \/ exists st sch ui pt, hostable u st sch ui pt.
Proof.
  intros C. destruct (Canon_cases hp hpo hd u C) as [(sch & P & q & f & K & ->) | [(sch & segs & last & q & f & K & ->) | (st & sch & ui & h & pt & p & q & f & Hnf & K & Kp & ->)]].
  - left. exact (opaque_url_cbb sch P q f K).
  - right. destruct (starts_with s_ss (path_text segs last)) eqn:Es.
    + left. rewrite noauth_marker by reflexivity. exact Es.
    + right. exists STNotSpecial, sch, UNone, None. exact (HB_noauth sch segs last q f K Es).
  - right. right. exists st, sch, ui, pt. exact (hostable_auth st sch ui h pt p q f Hnf K Kp).
Qed.

(* outside the known classes a host setter meets a record it refuses (opaque path) or one it acts on *)
Lemma host_op_classes u o : Canon u -> known_step2 dbg hp hpo hd u o = false -> is_host_or_path_op o = true ->
  cannot_be_a_base u = Some true \/ exists st sch ui pt, hostable u st sch ui pt.
Proof.
  intros C Hk Ho. destruct (Canon_classes u C) as [Hc | [Hm | Hh]]; [left; exact Hc | | right; exact Hh].
  unfold known_step2, known_step in Hk. rewrite !orb_false_iff in Hk. destruct Hk as [[[[[K1 _] _] _] _] _].
  unfold Known_F_C03_5 in K1. rewrite Ho, andb_true_r in K1. congruence.
Qed.

Lemma u_scheme_type_of u sch : scheme u = Some sch -> u_scheme_type u = Some (scheme_type_of sch).
Proof. intros E. unfold u_scheme_type. rewrite E. reflexivity. Qed.

(* Url::set_ip_host *)
Lemma ip_host_ok st h' : ip_clause hp hpo hd -> op_args_ok (OSetIpHost h') -> st_is_file st = false ->
  (st_is_special st = false -> match h' with HIpv4 _ => False | _ => True end) -> host_ok st h'.
Proof.
  intros HIP Ha Hnf H4. destruct (HIP h' Ha) as (T & P & P6). right.
  assert (h' <> HDomain []) as Hne by (intros ->; exact Ha).
  split; [exact Hne|]. split; [exact T|]. unfold hpx. destruct (st_is_special st) eqn:Esp.
  - split; [exact P | exact (proj1 HAb _ _ P)].
  - specialize (H4 eq_refl). destruct h' as [d|a|ps]; [contradiction|contradiction|].
    pose proof (P6 ps eq_refl) as Po. split; [exact Po | exact (proj2 HAb _ _ Po)].
Qed.

Theorem set_ip_host_Canon u h' u' s : ip_clause hp hpo hd -> Canon u -> op_args_ok (OSetIpHost h') ->
  known_step2 dbg hp hpo hd u (OSetIpHost h') = false ->
  set_ip_host dbg hd u h' = Some (u', s) -> nlen (ser u') <= U32_MAX_P -> Canon u'.
Proof.
  intros HIP C Ha Hk. unfold set_ip_host. destruct (host_op_classes u _ C Hk eq_refl) as [Hc | (st & sch & ui & pt & Hh)].
  - rewrite Hc. cbn [bindo]. intros E _. inversion E; subst. exact C.
  - unfold known_step2, known_step in Hk. rewrite !orb_false_iff in Hk. destruct Hk as [_ K9].
    destruct (hostable_facts u st sch ui pt Hh) as (Es & Est & Hnf & Hc & Eso & Ept & Hui & Hpo & _).
    rewrite Hc. cbn [bindo]. destruct (set_host_internal dbg hd u h' None) as [u1|] eqn:E1; [|discriminate].
    cbn [bindo]. intros E Hb. inversion E; subst u1 s. clear E.
    apply (shi_hostable u st sch ui pt h' None u' Hh); try assumption.
    + apply (ip_host_ok st h' HIP Ha Hnf). intros Esp. unfold Known_F_C02_9 in K9. rewrite Eso, Est, Esp in K9.
      destruct h'; try exact I. discriminate K9.
    + intros ->. contradiction Ha.
Qed.

(* Url::set_host(Some x) *)
Lemma nfirstn_pos_cons i c (r : list N) : i <> 0 -> nfirstn i (c :: r) <> [].
Proof. intros Hi. unfold nfirstn. destruct (N.to_nat i) eqn:E; [lia|]. cbn [firstn]. discriminate. Qed.

Theorem set_host_some_Canon u x u' s : host_nonempty hp hpo -> Canon u -> usv_list x ->
  known_step2 dbg hp hpo hd u (OSetHost (Some x)) = false ->
  set_host dbg hp hpo hd u (Some x) = Some (u', s) -> nlen (ser u') <= U32_MAX_P -> Canon u'.
Proof.
  intros [HN1 HN2] C Hx Hk. unfold set_host. destruct (host_op_classes u _ C Hk eq_refl) as [Hc | (st & sch & ui & pt & Hh)].
  - rewrite Hc. cbn [bindo]. intros E _. inversion E; subst. exact C.
  - unfold known_step2, known_step in Hk. rewrite !orb_false_iff in Hk. destruct Hk as [[_ K4] _].
    destruct (hostable_facts u st sch ui pt Hh) as (Es & Est & Hnf & Hc & Eso & Ept & Hui & Hpo & _).
    rewrite Hc. cbn [bindo]. rewrite (u_scheme_type_of u sch Es). cbn [bindo]. rewrite Est, Hnf. cbn [negb]. rewrite andb_true_r.
    destruct ((match x with [] => true | _ => false end) && st_is_special st) eqn:E0.
    { intros E _. inversion E; subst. exact C. }
    set (sub := if (match x with 91 :: _ => true | _ => false end) && ends_with_byte 93 x then Some x
                else match find_byte 58 x with Some 0 => None | Some i => Some (nfirstn i x) | None => Some x end).
    assert (forall hsub, sub = Some hsub -> usv_list hsub) as Husub.
    { intros hsub E. unfold sub in E.
      destruct ((match x with 91 :: _ => true | _ => false end) && ends_with_byte 93 x); [inversion E; subst; exact Hx|].
      destruct (find_byte 58 x) as [[|i]|]; inversion E; subst; [apply usv_nfirstn|]; exact Hx. }
    assert (forall hsub, sub = Some hsub -> hsub = [] -> x = []) as Hsub.
    { intros hsub E En. subst hsub. unfold sub in E. destruct x as [|c r]; [reflexivity|]. exfalso.
      destruct ((match c :: r with 91 :: _ => true | _ => false end) && ends_with_byte 93 (c :: r)); [discriminate E|].
      destruct (find_byte 58 (c :: r)) as [i|]; [|discriminate E].
      destruct (N.eq_dec i 0) as [->|Hi]; [discriminate E|].
      destruct i; [contradiction|]. inversion E as [E']. exact (nfirstn_pos_cons _ c r Hi E'). }
    fold sub. destruct sub as [hsub|] eqn:Esub.
    2:{ intros E _. inversion E; subst. exact C. }
    destruct (if st_is_special st then hp hsub else hpo hsub) as [h'|e] eqn:Eh.
    2:{ intros E _. inversion E; subst. exact C. }
    destruct (set_host_internal dbg hd u h' None) as [u1|] eqn:E1; [|discriminate].
    cbn [bindo]. intros E Hb. inversion E; subst u1 s. clear E.
    apply (shi_hostable u st sch ui pt h' None u' Hh); try assumption.
    + destruct (host_eq_dec_nil h') as [->|Hne].
      * left. split; [reflexivity|]. destruct (st_is_special st); [exfalso; exact (HN1 _ Eh) | reflexivity].
      * apply (hpx_host_ok hp hpo hd HRT HAb st hsub h'); [|exact Hne]. unfold hpx. destruct (st_is_special st); exact Eh.
    + intros ->. assert (x = []) as Ex.
      { apply (Hsub hsub eq_refl). destruct (st_is_special st); [exfalso; exact (HN1 _ Eh) | exact (HN2 _ (Husub hsub eq_refl) Eh)]. }
      subst x. unfold Known_F_C02_4 in K4. apply orb_false_iff in K4. destruct K4 as [_ K4]. cbn [andb] in K4.
      unfold has_credentials_or_port in K4. apply orb_false_iff in K4. destruct K4 as [K4a K4b].
      apply negb_false_iff in K4a. apply N.eqb_eq in K4a. split; [exact (Hui K4a)|].
      rewrite Ept in K4b. destruct pt; [discriminate K4b | reflexivity].
Qed.
End HostCanon.
