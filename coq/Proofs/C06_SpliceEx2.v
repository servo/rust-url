(* Proofs/C06_SpliceEx2.v - non-vacuity of the whole-URL agreement theorems for set_path and set_host(Some) and of the
   ReachC6 histories: with the host functions ex_hp / ex_hd of C02 (HostRT and host_above hold), on "a://h:80/p?q#f"
   (qx_u) and "http://u:p@h/p" (sx_u) each setter succeeds, the argument classes are met, and the spliced texts are the
   expected strings. *)
From Coq Require Import String.
From RU Require Import Base.Prelude Base.Utf8 Model.AsciiSet Gen.Tables Model.PercentEncoding Model.HostT Model.UrlRecord
  Model.Parser Model.Setters Model.WF Proofs.ListN Proofs.C06_WFI Proofs.C06_Path Proofs.C02_Enc Proofs.C02_Parts Proofs.C02_Reach Proofs.C02_AuthParts Proofs.C02_Auth
  Proofs.C02_AuthMain Proofs.C02_Canon Proofs.C06_Quirks Proofs.C06_AgreeSet Proofs.C06_Splice Proofs.C06_SpliceAuth Proofs.C06_SpliceCred
  Proofs.C06_SpliceEx Proofs.C06_SplicePath Proofs.C06_SpliceHost Proofs.C06_All.
Open Scope N_scope.
Open Scope list_scope.

Lemma splice2_inhabited :
  has_authority_b qx_u = true /\ has_authority_b sx_u = true
  /\ splice_case (set_path true qx_u (B "/a b/../c")) (splice_path qx_u (B "/a b/../c")) (B "a://h:80/a b/../c?q#f") "a://h:80/c?q#f"
  /\ forallb no_qh (B "/a b/../c") = true /\ path_arg_ok (sp_of qx_u) (B "/a b/../c")
  /\ splice_case (set_path true sx_u (B "/x y")) (splice_path sx_u (B "/x y")) (B "http://u:p@h/x y") "http://u:p@h/x%20y"
  /\ first_ok (rev (B "/x y"))
  /\ splice_case (set_path true sx_u [92; 120]) (splice_path sx_u [92; 120]) (B "http://u:p@h" ++ [92; 120]) "http://u:p@h/x"
  /\ path_arg_ok (sp_of sx_u) [92; 120]
  /\ splice_case (set_path true qx_u []) (splice_path qx_u []) (B "a://h:80?q#f") "a://h:80?q#f"
  /\ splice_case (ok_of (set_host true ex_hp ex_hp ex_hd qx_u (Some (B "x.y")))) (splice_host qx_u (B "x.y")) (B "a://x.y:80/p?q#f") "a://x.y:80/p?q#f"
  /\ forallb (hostarg (sp_of qx_u)) (B "x.y") = true
  /\ splice_case (ok_of (set_host true ex_hp ex_hp ex_hd sx_u (Some (B "abc")))) (splice_host sx_u (B "abc")) (B "http://u:p@abc/p") "http://u:p@abc/p"
  /\ forallb (hostarg (sp_of sx_u)) (B "abc") = true.
Proof.
  split; [vm_compute; reflexivity|]. split; [vm_compute; reflexivity|].
  split; [eapply splice_case_intro; [vm_compute; reflexivity | vm_compute; reflexivity | vm_compute; reflexivity | vm_compute; reflexivity]|].
  split; [vm_compute; reflexivity|]. split; [vm_compute; reflexivity|].
  split; [eapply splice_case_intro; [vm_compute; reflexivity | vm_compute; reflexivity | vm_compute; reflexivity | vm_compute; reflexivity]|].
  split; [vm_compute; reflexivity|].
  split; [eapply splice_case_intro; [vm_compute; reflexivity | vm_compute; reflexivity | vm_compute; reflexivity | vm_compute; reflexivity]|].
  split; [vm_compute; reflexivity|].
  split; [eapply splice_case_intro; [vm_compute; reflexivity | vm_compute; reflexivity | vm_compute; reflexivity | vm_compute; reflexivity]|].
  split; [eapply splice_case_intro; [vm_compute; reflexivity | vm_compute; reflexivity | vm_compute; reflexivity | vm_compute; reflexivity]|].
  split; [vm_compute; reflexivity|].
  split; [eapply splice_case_intro; [vm_compute; reflexivity | vm_compute; reflexivity | vm_compute; reflexivity | vm_compute; reflexivity]|].
  vm_compute; reflexivity.
Qed.

(* a ReachC6 history: parse "a://h:80/p?q#f", set_path("/a b/../c"), set_host(Some "x.y"), set_fragment(Some "g") *)
Lemma reach6_inhabited :
  exists u1 u2 u3, ReachC6 true ex_hp ex_hp ex_hd qx_u
    /\ set_path true qx_u (B "/a b/../c") = Some u1 /\ ReachC6 true ex_hp ex_hp ex_hd u1
    /\ set_host true ex_hp ex_hp ex_hd u1 (Some (B "x.y")) = Some (u2, SOk) /\ ReachC6 true ex_hp ex_hp ex_hd u2
    /\ set_fragment true u2 (Some (B "g")) = Some u3 /\ ReachC6 true ex_hp ex_hp ex_hd u3
    /\ ser u3 = B "a://x.y:80/c?q#g".
Proof.
  assert (ReachC6 true ex_hp ex_hp ex_hd qx_u) as R0.
  { apply (RC6_parse true ex_hp ex_hp ex_hd None (B "a://h:80/p?q#f")).
    - apply usv_B_small. vm_compute. reflexivity.
    - vm_compute. reflexivity.
    - left. reflexivity.
    - vm_compute. reflexivity. }
  destruct (set_path true qx_u (B "/a b/../c")) as [u1|] eqn:E1; [|vm_compute in E1; discriminate E1].
  assert (ReachC6 true ex_hp ex_hp ex_hd u1) as R1.
  { apply (RC6_path true ex_hp ex_hp ex_hd qx_u (B "/a b/../c") u1 R0); try exact E1.
    - vm_compute. reflexivity.
    - apply usv_B_small. vm_compute. reflexivity.
    - vm_compute. reflexivity.
    - vm_compute. reflexivity.
    - vm_compute in E1. inversion E1; subst u1. vm_compute. discriminate. }
  destruct (set_host true ex_hp ex_hp ex_hd u1 (Some (B "x.y"))) as [[u2 s2]|] eqn:E2;
    [|vm_compute in E1; inversion E1; subst u1; vm_compute in E2; discriminate E2].
  assert (s2 = SOk) as -> by (vm_compute in E1; inversion E1; subst u1; vm_compute in E2; inversion E2; reflexivity).
  assert (ReachC6 true ex_hp ex_hp ex_hd u2) as R2.
  { apply (RC6_host true ex_hp ex_hp ex_hd u1 (B "x.y") u2 R1); try exact E2;
      vm_compute in E1; inversion E1; subst u1; vm_compute in E2; inversion E2; subst u2.
    - vm_compute. reflexivity.
    - vm_compute. reflexivity.
    - intros Hi. vm_compute in Hi. discriminate Hi.
    - vm_compute. discriminate. }
  destruct (set_fragment true u2 (Some (B "g"))) as [u3|] eqn:E3;
    [|vm_compute in E1; inversion E1; subst u1; vm_compute in E2; inversion E2; subst u2; vm_compute in E3; discriminate E3].
  exists u1, u2, u3. split; [exact R0|]. split; [reflexivity|]. split; [exact R1|]. split; [exact E2|]. split; [exact R2|].
  split; [exact E3|].
  vm_compute in E1; inversion E1; subst u1; vm_compute in E2; inversion E2; subst u2; vm_compute in E3; inversion E3; subst u3.
  split; [|vm_compute; reflexivity].
  match goal with |- ReachC6 _ _ _ _ ?u3 => apply (RC6_step true ex_hp ex_hp ex_hd _ (OSetFragment (Some (B "g"))) u3 R2) end.
  - reflexivity.
  - apply usv_B_small. vm_compute. reflexivity.
  - vm_compute. reflexivity.
  - vm_compute. discriminate.
Qed.
