(* Proofs/C02_AuthMain.v - classes (iii) and (iv) of DESIGN B.5 assembled: class recognisers on the input,
   L1 (canonical form + wf_b + ASCII), L3 (fixpoint of serialize-then-parse), and a concrete instance of
   the host hypotheses for the non-vacuity examples. *)
From Coq Require Import String.
From RU Require Import Base.Prelude Model.HostT Model.UrlRecord Model.Parser Model.WF Proofs.C02_Opaque
  Proofs.C02_Path Proofs.C02_PathL1 Proofs.C02_Reach Proofs.C16_RT Proofs.C02_AuthParts Proofs.C02_Auth Proofs.C02_AuthWf
  Proofs.C02_AuthSp.
Open Scope N_scope.
Open Scope list_scope.

(* class (iii): non-special scheme, "//" after the colon, no base *)
Definition auth_input (input : list N) : bool :=
  match parse_scheme CUrlParser (input_new_trim_c0 input) with
  | Some (sch, rem) =>
      scheme_type_eqb (scheme_type_of sch) STNotSpecial
      && match inp_split_prefix_str s_ss rem with Some _ => true | None => false end
  | None => false
  end.

Lemma auth_input_inv input : auth_input input = true ->
  exists sch rem rem', parse_scheme CUrlParser (input_new_trim_c0 input) = Some (sch, rem)
    /\ scheme_type_of sch = STNotSpecial /\ inp_split_prefix_str s_ss rem = Some rem'.
Proof.
  unfold auth_input. destruct (parse_scheme CUrlParser (input_new_trim_c0 input)) as [[sch rem]|]; [|discriminate].
  intros H. apply andb_true_iff in H. destruct H as [H1 H2].
  destruct (inp_split_prefix_str s_ss rem) as [rem'|] eqn:E; [|discriminate].
  exists sch, rem, rem'. split; [reflexivity|]. split; [|exact E].
  destruct (scheme_type_of sch); try discriminate. reflexivity.
Qed.

(* the canonical form: scheme "://" [user [":" pw] "@"] host [":" port] path ["?" q] ["#" f] with
   a lower-case scheme of the given type, user / pw clean for USERINFO (pw non-empty when present, user
   non-empty when there is no pw), host the display of a host value that parses back to itself (or the
   empty host of a non-special URL, then without userinfo and port), port <= 65535 and not the default,
   path empty or "/" seg "/" ... "/" last with every segment clean for PATH and not a dot segment in any
   spelling, query clean for the query set of the scheme type, fragment clean for FRAGMENT *)
Definition canon_auth (hp hpo : list N -> result host) (hd : host -> list N) (st : scheme_type) (u : url) : Prop :=
  exists sch ui h pt p q f, auth_ok hp hpo hd st sch ui h pt p q f /\ u = auth_url hd sch ui h pt p q f.

(* class (iv): a special scheme other than file (any number of '/' and '\' may follow the colon) *)
Definition special_input (input : list N) : bool :=
  match parse_scheme CUrlParser (input_new_trim_c0 input) with
  | Some (sch, _) => scheme_type_eqb (scheme_type_of sch) STSpecialNotFile
  | None => false
  end.

Lemma special_input_inv input : special_input input = true ->
  exists sch rem, parse_scheme CUrlParser (input_new_trim_c0 input) = Some (sch, rem)
    /\ scheme_type_of sch = STSpecialNotFile.
Proof.
  unfold special_input. destruct (parse_scheme CUrlParser (input_new_trim_c0 input)) as [[sch rem]|]; [|discriminate].
  intros H. exists sch, rem. split; [reflexivity|]. destruct (scheme_type_of sch); try discriminate. reflexivity.
Qed.

(* canonical form of class (iv): as canon_auth for the type STSpecialNotFile (so the host is never empty and
   the query is clean for SPECIAL_QUERY), and the path is "/" seg "/" ... "/" last with no '\' in any segment *)
Definition canon_special (hp hpo : list N -> result host) (hd : host -> list N) (u : url) : Prop :=
  exists sch ui h pt p q f, auth_ok hp hpo hd STSpecialNotFile sch ui h pt p q f /\ pth_ok_sp p
                            /\ u = auth_url hd sch ui h pt p q f.

Section Main.
Variable dbg : bool.
Variable hp hpo : list N -> result host.
Variable hd : host -> list N.
Hypothesis HRT : HostRT hp hpo hd.

Theorem L1_auth ovr input u : host_above hp hpo hd -> usv_list input -> auth_input input = true ->
  parse_url dbg hp hpo hd ovr None input = POk u ->
  canon_auth hp hpo hd STNotSpecial u /\ wf_b u = true /\ ascii (ser u) /\ cannot_be_a_base u = Some false.
Proof.
  intros HAb Hu Hc Hp. destruct (auth_input_inv input Hc) as (sch & rem & rem' & Hs & Hns & Hss).
  destruct (parse_auth_out dbg hp hpo hd HRT HAb ovr input sch rem rem' u Hu Hs Hns Hss Hp) as (ui & h & pt & p & q & f & K & ->).
  destruct (auth_url_wf hp hpo hd HRT _ _ _ _ _ _ _ _ K) as [W C].
  split; [exists sch, ui, h, pt, p, q, f; split; [exact K | reflexivity]|]. split; [exact W|]. split; [|exact C].
  apply okc_ascii. exact (auth_ser_okc hp hpo hd HRT _ _ _ _ _ _ _ _ K).
Qed.

Theorem L3_auth u : canon_auth hp hpo hd STNotSpecial u -> Fixpoint_of_reparse dbg hp hpo hd u.
Proof.
  intros (sch & ui & h & pt & p & q & f & K & ->).
  unfold Fixpoint_of_reparse, reparse. cbn [ser auth_url].
  rewrite utf8_lossy_ascii by (apply okc_ascii; exact (auth_ser_okc hp hpo hd HRT _ _ _ _ _ _ _ _ K)).
  exact (reparse_auth_form dbg hp hpo hd HRT None sch ui h pt p q f K).
Qed.

Theorem reparse_auth ovr input u : host_above hp hpo hd -> usv_list input -> auth_input input = true ->
  parse_url dbg hp hpo hd ovr None input = POk u -> Fixpoint_of_reparse dbg hp hpo hd u.
Proof. intros HAb Hu Hc Hp. apply L3_auth. exact (proj1 (L1_auth ovr input u HAb Hu Hc Hp)). Qed.

(* class (iv): special non-file scheme, no base *)
Theorem L1_special input u : host_above hp hpo hd -> usv_list input -> special_input input = true ->
  parse_url dbg hp hpo hd None None input = POk u ->
  canon_special hp hpo hd u /\ wf_b u = true /\ ascii (ser u) /\ cannot_be_a_base u = Some false.
Proof.
  intros HAb Hu Hc Hp. destruct (special_input_inv input Hc) as (sch & rem & Hs & Hst).
  destruct (parse_special_out dbg hp hpo hd HRT HAb input sch rem u Hu Hs Hst Hp) as (ui & h & pt & p & q & f & K & Kp & ->).
  destruct (auth_url_wf hp hpo hd HRT _ _ _ _ _ _ _ _ K) as [W C].
  split; [exists sch, ui, h, pt, p, q, f; split; [exact K | split; [exact Kp | reflexivity]]|]. split; [exact W|]. split; [|exact C].
  apply okc_ascii. exact (auth_ser_okc hp hpo hd HRT _ _ _ _ _ _ _ _ K).
Qed.

Theorem L3_special u : canon_special hp hpo hd u -> Fixpoint_of_reparse dbg hp hpo hd u.
Proof.
  intros (sch & ui & h & pt & p & q & f & K & Kp & ->).
  unfold Fixpoint_of_reparse, reparse. cbn [ser auth_url].
  rewrite utf8_lossy_ascii by (apply okc_ascii; exact (auth_ser_okc hp hpo hd HRT _ _ _ _ _ _ _ _ K)).
  exact (reparse_special_form dbg hp hpo hd HRT sch ui h pt p q f K Kp).
Qed.

Theorem reparse_special input u : host_above hp hpo hd -> usv_list input -> special_input input = true ->
  parse_url dbg hp hpo hd None None input = POk u -> Fixpoint_of_reparse dbg hp hpo hd u.
Proof. intros HAb Hu Hc Hp. apply L3_special. exact (proj1 (L1_special input u HAb Hu Hc Hp)). Qed.

End Main.

(* a concrete instance of the host hypotheses HostRT and host_above (ex_host_RT): accepts the empty text and the
   non-empty texts over letters, digits, '-' and '.', displays them back *)
Definition ex_hostc (c : N) : bool := is_alnum c || (c =? 45) || (c =? 46).
Definition ex_hp (s : list N) : result host :=
  match s with
  | [] => Ok (HDomain [])
  | _ => if forallb ex_hostc s then Ok (HDomain s) else Err InvalidDomainCharacter
  end.
Definition ex_hd (h : host) : list N := match h with HDomain d => d | _ => [] end.

Lemma ex_hostc_range c : ex_hostc c = true ->
  48 <= c <= 57 \/ 65 <= c <= 90 \/ 97 <= c <= 122 \/ c = 45 \/ c = 46.
Proof. unfold ex_hostc, is_alnum, is_alpha, is_upper, is_lower, is_digit. lia. Qed.

Lemma ex_host_scan sp s : forall acc rest, forallb ex_hostc s = true ->
  match rest with [] => True | c :: _ => (c =? 58) || (c =? 47) || (c =? 63) || (c =? 35) || ((c =? 92) && sp) = true end ->
  host_scan sp false acc (s ++ rest) = (rev acc ++ s, rest).
Proof.
  induction s as [|c s IH]; intros acc rest Hs Hr.
  - cbn [app]. rewrite app_nil_r. destruct rest as [|c r]; [reflexivity|]. cbn [host_scan].
    assert (is_tnl c = false) as Ht by (unfold is_tnl; destruct sp; lia). rewrite Ht. cbn [negb].
    assert (((c =? 58) && true) || ((c =? 92) && sp) || (c =? 47) || (c =? 63) || (c =? 35) = true) as E by (destruct sp; lia).
    rewrite E. reflexivity.
  - cbn [forallb] in Hs. apply andb_true_iff in Hs. destruct Hs as [Hc Hs]. apply ex_hostc_range in Hc.
    cbn [app host_scan].
    assert (is_tnl c = false) as Ht by (unfold is_tnl; lia). rewrite Ht. cbn [negb].
    assert (((c =? 58) && true) || ((c =? 92) && sp) || (c =? 47) || (c =? 63) || (c =? 35) = false) as E by (destruct sp; lia).
    rewrite E. replace (c =? 91) with false by lia. replace (c =? 93) with false by lia.
    rewrite IH by assumption. cbn [rev]. rewrite <- app_assoc. reflexivity.
Qed.

Lemma ex_text_ok s : s <> [] -> forallb ex_hostc s = true -> host_text_ok s /\ forallb above_space s = true.
Proof.
  intros Hne Hs. split; [split; [|split; [exact Hne|split]]|].
  - apply Forall_forall. intros c Hc. rewrite forallb_forall in Hs. pose proof (ex_hostc_range c (Hs c Hc)).
    unfold is_ascii. lia.
  - intros sp rest Hr. apply (ex_host_scan sp s [] rest Hs Hr).
  - rewrite <- (app_nil_r s). rewrite scan_plain; [reflexivity|].
    apply (forallb_impl ex_hostc); [|exact Hs]. intros c Hc. apply ex_hostc_range in Hc.
    unfold plainc, auth_delim, is_tnl. lia.
  - apply (forallb_impl ex_hostc); [|exact Hs]. intros c Hc. apply ex_hostc_range in Hc.
    unfold above_space, is_c0_or_space. lia.
Qed.

Lemma ex_hp_inv s h : ex_hp s = Ok h -> h <> HDomain [] -> h = HDomain s /\ s <> [] /\ forallb ex_hostc s = true.
Proof.
  unfold ex_hp. destruct s as [|c t]; [intros H; inversion H; subst; contradiction|].
  destruct (forallb ex_hostc (c :: t)) eqn:E; [|discriminate]. intros H _. inversion H; subst.
  split; [reflexivity|]. split; [discriminate | reflexivity].
Qed.

Lemma ex_host_RT : HostRT ex_hp ex_hp ex_hd /\ host_above ex_hp ex_hp ex_hd.
Proof.
  assert (forall s h, ex_hp s = Ok h -> h <> HDomain [] -> host_text_ok (ex_hd h) /\ ex_hp (ex_hd h) = Ok h) as G.
  { intros s h H Hne. destruct (ex_hp_inv s h H Hne) as (-> & Hn & Hf). cbn [ex_hd].
    split; [exact (proj1 (ex_text_ok s Hn Hf))|]. exact H. }
  assert (forall s h, ex_hp s = Ok h -> forallb above_space (ex_hd h) = true) as GA.
  { intros s h H. destruct h as [[|d0 d]|a|pcs]; try reflexivity.
    destruct (ex_hp_inv s _ H ltac:(discriminate)) as (E & Hn & Hf). inversion E; subst. cbn [ex_hd].
    exact (proj2 (ex_text_ok _ Hn Hf)). }
  split; [split; [exact G | split; [exact G | split; reflexivity]] | split; exact GA].
Qed.

(* The same under HostOK of C02_Reach.v (through HostOK_RT).  HostOK has no instance in the development:
   C02_Hist.HostOK_old_unsat refutes it whenever hp [] <> Ok (HDomain []) or hpo (hd (HIpv4 a)) <> Ok (HIpv4 a) for
   some a < 2^32 - the first holds of url::Host (C02_HistInst.HostOK_old_unsat_model), the second of ex_hp / ex_hd above.
   The forms whose hypotheses have an instance: L1_auth / L3_auth / L1_special / L3_special and reparse_nonfile
   (HostRT), C02_Hist.reparse_auth_HostOK2 / reparse_special_HostOK2 / reparse_nonfile_HostOK2 (HostOK2). *)
Theorem reparse_auth_HostOK dbg hp hpo hd ovr input u :
  HostOK hp hpo hd -> host_above hp hpo hd -> usv_list input -> auth_input input = true ->
  parse_url dbg hp hpo hd ovr None input = POk u ->
  Fixpoint_of_reparse dbg hp hpo hd u /\ wf_b u = true /\ canon_auth hp hpo hd STNotSpecial u.
Proof.
  intros HOK HAb Hu Hc Hp. pose proof (HostOK_RT _ _ _ HOK) as HRT.
  destruct (L1_auth dbg hp hpo hd HRT ovr input u HAb Hu Hc Hp) as (C & W & _).
  split; [exact (L3_auth dbg hp hpo hd HRT u C) | split; assumption].
Qed.

Theorem reparse_special_HostOK dbg hp hpo hd input u :
  HostOK hp hpo hd -> host_above hp hpo hd -> usv_list input -> special_input input = true ->
  parse_url dbg hp hpo hd None None input = POk u ->
  Fixpoint_of_reparse dbg hp hpo hd u /\ wf_b u = true /\ canon_special hp hpo hd u.
Proof.
  intros HOK HAb Hu Hc Hp. pose proof (HostOK_RT _ _ _ HOK) as HRT.
  destruct (L1_special dbg hp hpo hd HRT input u HAb Hu Hc Hp) as (C & W & _).
  split; [exact (L3_special dbg hp hpo hd HRT u C) | split; assumption].
Qed.

(* non-vacuity *)
Definition ex_parse (s : string) : pres url := parse_url true ex_hp ex_hp ex_hd None None (B s).
Definition ex_result (s : string) (expect : string) (se ue hs he ps : N) (pt : option N) : bool :=
  match ex_parse s with
  | POk u => list_eqb (ser u) (B expect) && (scheme_end u =? se) && (username_end u =? ue) && (host_start u =? hs)
             && (host_end u =? he) && (path_start u =? ps) && opt_eqb (port u) pt
             && match parse_url true ex_hp ex_hp ex_hd None None (ser u) with POk v => url_eqb v u | _ => false end
  | _ => false
  end.

Lemma auth_examples :
  auth_input (B "a://u:p@h.x:81/a/../b?q#f") = true /\ auth_input (B "a:///p") = true
  /\ auth_input (B "a://@h") = true /\ auth_input (B "a:/p") = false /\ auth_input (B "http://h") = false
  /\ ex_result "a://u:p@h.x:81/a/../b?q#f" "a://u:p@h.x:81/b?q#f" 1 5 8 11 14 (Some 81) = true
  /\ ex_result "a:///p" "a:///p" 1 4 4 4 4 None = true
  /\ ex_result "a://@h" "a://h" 1 4 4 5 5 None = true
  /\ ex_result "a://h:/" "a://h/" 1 4 4 5 5 None = true.
Proof. vm_compute. repeat split. Qed.

Lemma special_examples :
  special_input (B "HTTP:\\u@H.x:80\a\..\b?q'#f") = true /\ special_input (B "ws:h") = true
  /\ special_input (B "file://h/") = false /\ special_input (B "a://h") = false
  /\ ex_result "HTTP:\\u@H.x:80\a\..\b?q'#f" "http://u@H.x/b?q%27#f" 4 8 9 12 12 None = true
  /\ ex_result "ws:h" "ws://h/" 2 5 5 6 6 None = true
  /\ ex_result "https://h:8443/%2e/x\" "https://h:8443/x/" 5 8 8 9 14 (Some 8443) = true
  /\ match ex_parse "http://" with PErr EmptyHost => true | _ => false end = true.
Proof. vm_compute. repeat split. Qed.

(* the union of classes (i)-(iv): every non-file scheme, no base *)
Definition nonfile_input (input : list N) : bool :=
  match parse_scheme CUrlParser (input_new_trim_c0 input) with
  | Some (sch, _) => negb (st_is_file (scheme_type_of sch))
  | None => false
  end.

Theorem reparse_nonfile dbg hp hpo hd input u :
  HostRT hp hpo hd -> host_above hp hpo hd -> usv_list input -> nonfile_input input = true ->
  parse_url dbg hp hpo hd None None input = POk u ->
  Fixpoint_of_reparse dbg hp hpo hd u /\ wf_b u = true /\ ascii (ser u).
Proof.
  intros HRT HAb Hu Hc Hp. unfold nonfile_input in Hc.
  destruct (parse_scheme CUrlParser (input_new_trim_c0 input)) as [[sch rem]|] eqn:Hs; [|discriminate].
  destruct (scheme_type_of sch) eqn:Hst; [discriminate| |].
  - (* special non-file *)
    assert (special_input input = true) as Hsi by (unfold special_input; rewrite Hs, Hst; reflexivity).
    destruct (L1_special dbg hp hpo hd HRT input u HAb Hu Hsi Hp) as (C & W & A & _).
    split; [exact (L3_special dbg hp hpo hd HRT u C) | split; assumption].
  - destruct (inp_split_prefix_char 47 rem) as [rem'|] eqn:E47.
    + destruct (inp_split_prefix_str s_ss rem) as [rem''|] eqn:Ess.
      * (* authority *)
        assert (auth_input input = true) as Hai by (unfold auth_input; rewrite Hs, Hst, Ess; reflexivity).
        destruct (L1_auth dbg hp hpo hd HRT None input u HAb Hu Hai Hp) as (C & W & A & _).
        split; [exact (L3_auth dbg hp hpo hd HRT u C) | split; assumption].
      * (* no authority, '/'-led path *)
        destruct (parse_noauth_out dbg hp hpo hd None input sch rem rem' u Hu Hs Hst Ess E47 Hp) as (segs & last & q & f & K & ->).
        destruct (noauth_url_wf sch segs last q f K) as (W & _ & A).
        split; [|split; [exact W | exact A]].
        unfold Fixpoint_of_reparse, reparse. cbn [ser noauth_url]. rewrite utf8_lossy_ascii by exact A.
        exact (reparse_noauth_form dbg hp hpo hd None sch segs last q f K).
    + (* opaque path *)
      destruct (parse_opaque_out dbg hp hpo hd None input sch rem u Hu Hs Hst E47 Hp) as (P & q & f & K & ->).
      pose proof (opaque_ser_ascii sch P q f K) as A.
      split; [|split; [exact (opaque_url_wf sch P q f K) | exact A]].
      unfold Fixpoint_of_reparse, reparse. cbn [ser opaque_url]. rewrite utf8_lossy_ascii by exact A.
      exact (reparse_opaque_form dbg hp hpo hd None sch P q f K).
Qed.

(* under HostOK, which has no instance: see reparse_auth_HostOK *)
Theorem reparse_nonfile_HostOK dbg hp hpo hd input u :
  HostOK hp hpo hd -> host_above hp hpo hd -> usv_list input -> nonfile_input input = true ->
  parse_url dbg hp hpo hd None None input = POk u ->
  Fixpoint_of_reparse dbg hp hpo hd u /\ wf_b u = true /\ ascii (ser u).
Proof. intros HOK. exact (reparse_nonfile dbg hp hpo hd input u (HostOK_RT _ _ _ HOK)). Qed.

Lemma nonfile_examples :
  nonfile_input (B "about:blank") = true /\ nonfile_input (B "a:/x/../y") = true /\ nonfile_input (B "a://u@h:1/") = true
  /\ nonfile_input (B "HTTPS:\h") = true /\ nonfile_input (B "file:///x") = false /\ nonfile_input (B "/relative") = false.
Proof. vm_compute. repeat split. Qed.
