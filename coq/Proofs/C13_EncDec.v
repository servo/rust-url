(* Proofs/C13_EncDec.v - encode (decode p) = p up to the case of the digits, through the u32 model.
   decode p = Ok s gives a run of the checked decoder (decode_b); the encoder's walk on s then succeeds
   and its output is the digits of p in lower case (c_outer); a successful walk means that the u32
   encoder does not overflow (link_outer_conv: every partial delta is below the delta that is emitted
   next, and that one satisfies di + delta <= u32::MAX). *)
From RU Require Import Base.Prelude Base.U32_c13 Model.Punycode Spec.Rfc3492
  Proofs.C13_Bounds Proofs.C13_Enc Proofs.C13_Dec Proofs.C13_Known Proofs.C13_Rt
  Proofs.C13_DecB Proofs.C13_RtB Proofs.C13_Small Proofs.C13_Mono Proofs.C13_Parse Proofs.C13_EncDecB.

(* a successful walk: the u32 encoder does not overflow *)
Lemma w_inner_d_le l : forall m d h di pos wd wh wdi,
  w_inner l m d h di pos = Some (wd, wh, wdi) -> wd <= U32_MAX -> d <= U32_MAX.
Proof.
  induction l as [|c l IH]; intros m d h di pos wd wh wdi Hw Hwd.
  - cbn [w_inner] in Hw. inversion Hw. subst. exact Hwd.
  - rewrite w_inner_cons in Hw. destruct (c =? m).
    + destruct (di + (if c <? m then d + 1 else d) <=? U32_MAX) eqn:E; [|discriminate].
      destruct (c <? m); lia.
    + apply IH in Hw; [|exact Hwd]. destruct (c <? m); lia.
Qed.

Lemma link_inner_conv cfg l : forall m bl d bias h di pos wd wh wdi,
  w_inner l m d h di pos = Some (wd, wh, wdi) -> wd <= U32_MAX ->
  enc_inner cfg true l m bl d bias h = Ok (s_enc_inner l m bl d bias h).
Proof.
  induction l as [|c l IH]; intros m bl d bias h di pos wd wh wdi Hw Hwd.
  - reflexivity.
  - pose proof (w_inner_d_le _ _ _ _ _ _ _ _ _ Hw Hwd) as Hd.
    rewrite enc_inner_cons, s_enc_inner_cons. cbv zeta. rewrite w_inner_cons in Hw.
    destruct (c =? m) eqn:Ecm.
    + apply N.eqb_eq in Ecm. subst c. replace (m <? m) with false in * by lia.
      destruct (di + d <=? U32_MAX); [|discriminate].
      cbn [rbind]. rewrite enc_vli_fuel_ok. cbn [rbind]. rewrite adapt_ok by lia. cbn [rbind].
      rewrite (IH m bl 0 (s_adapt d (h + 1) (h =? bl)) (h + 1) _ _ _ _ _ Hw Hwd). cbn [rbind].
      destruct (s_enc_inner l m bl 0 (s_adapt d (h + 1) (h =? bl)) (h + 1)) as [[[d1 b1] p1] o1]. reflexivity.
    + destruct (c <? m) eqn:Elt.
      * pose proof (w_inner_d_le _ _ _ _ _ _ _ _ _ Hw Hwd) as Hd1.
        rewrite caller_add_ok by exact Hd1. cbn [rbind]. exact (IH _ _ _ _ _ _ _ _ _ _ Hw Hwd).
      * cbn [rbind]. exact (IH _ _ _ _ _ _ _ _ _ _ Hw Hwd).
Qed.

Lemma link_outer_conv cfg input (HL : len input <= U32_MAX) fuel : forall cp delta bias h bl di,
  w_outer fuel input (len input) cp delta h di = true ->
  h = cnt (fun c => c <? cp) input -> len input - h < N.of_nat fuel ->
  enc_outer fuel cfg true input (len input) bl cp delta bias h = Ok (s_enc_outer fuel input (len input) bl cp delta bias h).
Proof.
  induction fuel as [|f IH]; intros cp delta bias h bl di Hw Hh Hf; [cbn in Hf; lia|].
  rewrite enc_outer_S, s_enc_outer_S. rewrite w_outer_S in Hw.
  destruct (h <? len input) eqn:E; [|reflexivity].
  destruct (min_exists input cp h Hh ltac:(lia)) as [m Em]. rewrite min_ge_eq, Em. rewrite Em in Hw. cbv zeta.
  apply s_min_ge_some in Em. destruct Em as [Hin [Hle Hmin]].
  destruct (w_inner input m (delta + (m - cp) * (h + 1)) h di 0) as [[[wd wh] wdi]|] eqn:Ew; [|discriminate].
  destruct (s_enc_inner input m bl (delta + (m - cp) * (h + 1)) bias h) as [[[d1 b1] h1] o1] eqn:Es.
  destruct (w_inner_proj _ _ bl _ bias _ _ _ _ _ _ _ _ _ _ Ew Es) as [-> ->].
  pose proof Es as Es'. apply s_inner_facts in Es'. destruct Es' as [Hh1 [_ Hd1]]. specialize (Hd1 Hin).
  pose proof (w_inner_d_le _ _ _ _ _ _ _ _ _ Ew ltac:(lia)) as Hd0.
  rewrite caller_mul_ok by lia. cbn [rbind].
  rewrite caller_add_ok by lia. cbn [rbind].
  rewrite (link_inner_conv cfg input m bl _ bias h di 0 _ _ _ Ew ltac:(lia)). rewrite Es. cbn [rbind].
  unfold unchecked_add. replace (d1 + 1 <=? U32_MAX) with true by lia. cbn [rbind].
  pose proof (cnt_eq_in input m Hin) as Hc.
  rewrite (IH (m + 1) (d1 + 1) b1 h1 bl wdi Hw).
  - reflexivity.
  - rewrite Hh1, Hh. symmetry. apply cnt_lt_step; assumption.
  - rewrite Nat2N.inj_succ in Hf. lia.
Qed.

(* the delimiter at position 0 is not a digit *)
Lemma rposition_zero p : s_rposition p = Some O -> exists r, p = s_delimiter :: r.
Proof.
  destruct p as [|x r]; [discriminate|]. cbn [s_rposition].
  destruct (s_rposition r); [discriminate|]. destruct (x =? s_delimiter) eqn:E; [|discriminate].
  intros _. apply N.eqb_eq in E. subst x. exists r. reflexivity.
Qed.

Lemma forallb_all_le base : forallb (fun c => c <? 128) base = true -> all_le 127 base /\ Forall (fun c => c < 128) base.
Proof.
  unfold all_le. induction base as [|c r IH]; intros H; [split; constructor|].
  cbn [forallb] in H. apply andb_true_iff in H. destruct H as [H1 H2]. destruct (IH H2) as [A B].
  split; (constructor; [lia|assumption]).
Qed.

(* no hypothesis on s is needed: an all-ASCII result comes from p = s ++ "-" (or p = s = ""), which re-encodes to itself *)
Theorem enc_dec_all : forall cfg p s, ~ Known_C13_2 p -> decode cfg p = Ok s ->
  exists q, encode cfg s = Ok q /\ eq_upto_digit_case q p.
Proof.
  intros cfg p s Hk Hdec.
  assert (HLp : len p <= U32_MAX) by (unfold Known_C13_2 in Hk; lia).
  destruct (decode_b cfg p s HLp Hdec) as [base [rest [Es [Ha Hb]]]].
  destruct (forallb_all_le base Ha) as [Hle127 Hlt128].
  pose proof (split_len _ _ _ Es) as Hsl.
  pose proof (proj1 (b_len_bounds _ _ _ _ _ _ _ _ _ _ _ Hb)) as Hls.
  assert (HLs : len s <= U32_MAX) by lia.
  (* the basic part of s is base *)
  assert (Hle128 : all_le s_initial_n base).
  { unfold all_le in *. eapply Forall_impl; [|exact Hle127]. intros c Hc. cbv beta in Hc |- *. unfold s_initial_n. lia. }
  destruct (b_mono _ _ _ _ _ _ _ _ _ _ _ Hle128 Hb) as [I1 _].
  assert (Hbase : base = filter (lt_m 128) s).
  { rewrite (filter_ext (lt_m 128) (le_m 127)) by (intros c; unfold lt_m, le_m; lia).
    rewrite (I1 127) by (unfold s_initial_n; lia). symmetry. apply filter_all_le. exact Hle127. }
  assert (Hcnt : cnt (fun c => c <? 128) s = len base).
  { rewrite cnt_filter. rewrite Hbase. reflexivity. }
  (* the encoder's walk on s *)
  destruct (c_outer digit_u8 digit_u8_lower (Datatypes.S (length s)) s (len base) 128 0 72 (len base) 128 0 base rest)
    as [Hdigits Hwalk].
  { split; [exact Hbase|]. rewrite !N.eqb_refl. cbn [filter]. rewrite len_nil. repeat split; lia. }
  { unfold len. rewrite Nat2N.inj_succ. lia. }
  { split; [exact Hle128|]. intros A B EAB _. rewrite EAB in Hlt128. apply Forall_app in Hlt128. exact (proj2 Hlt128). }
  { exact Hb. }
  (* the u32 encoder *)
  assert (Henc : encode cfg s = Ok (s_encode s)).
  { unfold encode. replace (U32_MAX <? N.of_nat (length s)) with false by (unfold len in HLs; lia).
    unfold encode_into. rewrite enc_basic_ok by (rewrite N.add_0_l; exact HLs). rewrite !N.add_0_l.
    cbn [rbind]. rewrite Hcnt.
    rewrite (link_outer_conv cfg s HLs (Datatypes.S (length s)) INITIAL_N 0 INITIAL_BIAS (len base) (len base) 0 Hwalk).
    - cbn [rbind]. rewrite s_encode_unfold, Hcnt. reflexivity.
    - symmetry. exact Hcnt.
    - unfold len. rewrite Nat2N.inj_succ. lia. }
  exists (s_encode s). split; [exact Henc|].
  unfold eq_upto_digit_case, lower_digits. rewrite Es.
  rewrite s_encode_unfold, Hcnt. change (filter (fun c => c <? 128) s) with (filter (lt_m 128) s).
  rewrite <- Hbase, <- Hdigits.
  unfold s_split in Es.
  destruct (s_rposition p) as [[|k]|] eqn:Er.
  - exfalso. destruct (rposition_zero p Er) as [r Hr]. change (0 <? 0)%nat with false in Es. cbv iota in Es.
    injection Es as Eb Erest. subst rest. rewrite Hr in Hb. rewrite b_dec_loop_cons in Hb.
    replace (digit_u8 s_delimiter) with (@None N) in Hb by (vm_compute; reflexivity). discriminate.
  - change (0 <? Datatypes.S k)%nat with true in Es. cbv iota in Es. injection Es as Eb Erest.
    assert (Hne : 0 <? len base = true).
    { rewrite <- Eb. destruct p as [|x r]; [discriminate|]. cbn [firstn]. rewrite len_cons. lia. }
    rewrite Hne. reflexivity.
  - injection Es as Eb Erest. rewrite <- Eb. rewrite len_nil. cbn [app]. reflexivity.
Qed.

Theorem enc_dec_main : forall cfg p s, ~ Known_C13_2 p -> decode cfg p = Ok s -> has_non_ascii s = true ->
  exists q, encode cfg s = Ok q /\ eq_upto_digit_case q p.
Proof. intros cfg p s Hk Hdec _. exact (enc_dec_all cfg p s Hk Hdec). Qed.

(* the executable forms of the two round trips hold on every sequence in their scope *)
Lemma rt_enc_check_true s : usv_list s -> (length s <= 1000)%nat -> rt_enc_check s = true.
Proof.
  intros Hu Hl. unfold rt_enc_check. destruct (encode_internal_eq true s Hu Hl) as [_ He]. rewrite He.
  rewrite (dec_enc_small_3855 true s _ Hu ltac:(lia) He). apply list_eqb_spec. reflexivity.
Qed.

Lemma rt_dec_check_true p : ~ Known_C13_2 p -> rt_dec_check p = true.
Proof.
  intros Hk. unfold rt_dec_check. destruct (decode true p) as [s| |site] eqn:Hd; try reflexivity.
  destruct (has_non_ascii s); [|reflexivity].
  destruct (enc_dec_all true p s Hk Hd) as [q [-> Hq]]. apply list_eqb_spec. exact Hq.
Qed.

Lemma all_seqs_spec A n : forall s, In s (all_seqs A n) -> (length s <= n)%nat /\ Forall (fun c => In c A) s.
Proof.
  induction n as [|n IH]; intros s H; cbn [all_seqs] in H.
  - destruct H as [<-|[]]. split; [cbn [length]; lia|constructor].
  - destruct H as [<-|H]; [split; [cbn [length]; lia|constructor]|].
    apply in_flat_map in H. destruct H as (t & Ht & H). apply in_map_iff in H. destruct H as (a & <- & Ha).
    destruct (IH t Ht) as [Hl Hf]. split; [cbn [length]; lia|constructor; assumption].
Qed.

Lemma small_scope_round_trips :
  forallb rt_enc_check (all_seqs [97; 45; 128; 252; 256; 65535; 65536; 1114111] 4) = true /\
  forallb rt_dec_check (all_seqs [97; 122; 65; 48; 57; 45; 33] 4) = true.
Proof.
  split; apply forallb_forall; intros s Hs; apply all_seqs_spec in Hs; destruct Hs as [Hl Hf].
  - apply rt_enc_check_true; [|lia]. unfold usv_list. eapply Forall_impl; [|exact Hf]. cbv beta. intros c Hc.
    unfold is_usv. cbn [In] in Hc. lia.
  - apply rt_dec_check_true. unfold Known_C13_2, len, U32_MAX. lia.
Qed.
