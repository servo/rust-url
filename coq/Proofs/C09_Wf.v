(* Proofs/C09_Wf.v - what the parsers return is well formed: eight pieces below 2^16, an address
   below 2^32. *)
From RU Require Import Base.Prelude Base.Utf8 Model.AsciiSet Gen.Tables Model.PercentEncoding Model.HostT Model.Host
  Proofs.C09_V6.

Definition wf8 (ps : list N) : Prop := length ps = 8%nat /\ Forall (fun x => x < 65536) ps.

Lemma wf8_zero : wf8 v6_zero.
Proof. split; [reflexivity|]. unfold v6_zero. repeat constructor. Qed.

Lemma upd_nth_forall (P : N -> Prop) ps : forall i v, Forall P ps -> P v -> Forall P (upd_nth ps i v).
Proof.
  induction ps as [|x r IH]; intros [|i] v H Hv; cbn [upd_nth]; try constructor; inversion H; subst; auto.
Qed.

Lemma set_piece_wf ps i v ps' : set_piece ps i v = Some ps' -> wf8 ps -> v < 65536 -> wf8 ps'.
Proof.
  unfold set_piece. destruct (i <? N.of_nat (length ps)); [|discriminate]. intros E [H1 H2] Hv.
  inversion E; subst. split; [rewrite upd_nth_length; exact H1 | apply upd_nth_forall; assumption].
Qed.

Lemma get_piece_wf ps i v : get_piece ps i = Some v -> wf8 ps -> v < 65536.
Proof.
  unfold get_piece. intros E [_ H]. apply nth_error_In in E. rewrite Forall_forall in H. apply H. exact E.
Qed.

Fixpoint hexB (k : nat) (v : N) : N := match k with O => v | S k' => hexB k' (v * 16 + 15) end.

Lemma hexB_mono k : forall v w, v <= w -> hexB k v <= hexB k w.
Proof. induction k as [|k IH]; intros v w H; cbn [hexB]; [exact H|]. apply IH. lia. Qed.

Lemma hexB_ge k : forall v, v <= hexB k v.
Proof. induction k as [|k IH]; intros v; cbn [hexB]; [lia|]. specialize (IH (v * 16 + 15)). lia. Qed.

Lemma read_hex_bound k : forall inp v n v' n' rest,
  read_hex k inp v n = (v', n', rest) -> v' <= hexB k v.
Proof.
  induction k as [|k IH]; intros inp v n v' n' rest H; cbn [read_hex] in H.
  - inversion H; subst. cbn. lia.
  - destruct inp as [|c r].
    + inversion H; subst. apply hexB_ge.
    + destruct (hex_val c) as [d|] eqn:E.
      * apply IH in H. pose proof (hex_val_bound c d E). cbn [hexB].
        eapply N.le_trans; [exact H|]. apply hexB_mono. lia.
      * inversion H; subst. apply hexB_ge.
Qed.

Lemma read_hex4_bound inp v' n' rest : read_hex 4 inp 0 0 = (v', n', rest) -> v' < 65536.
Proof. intros H. apply read_hex_bound in H. change (hexB 4 0) with 65535 in H. lia. Qed.

Definition exit_wf (ex : v6_exit) : Prop :=
  match ex with V6End ps _ _ => wf8 ps | V6Ipv4 _ ps _ _ => wf8 ps end.

Lemma v6_main_wf f : forall inp ps pp cp ex,
  wf8 ps -> v6_main f inp ps pp cp = XOk ex -> exit_wf ex.
Proof.
  induction f as [|f IH]; intros inp ps pp cp ex Hw H.
  - destruct inp; [rewrite v6_main_nil in H; inversion H; subst; exact Hw|].
    cbn [v6_main] in H. discriminate.
  - destruct inp as [|c r]; [rewrite v6_main_nil in H; inversion H; subst; exact Hw|].
    rewrite v6_main_step in H.
    destruct (pp =? 8); [discriminate|].
    destruct (c =? 58).
    { destruct cp; [discriminate|]. eapply IH; eassumption. }
    destruct (read_hex 4 (c :: r) 0 0) as [[value n] rest] eqn:E.
    pose proof (read_hex4_bound _ _ _ _ E) as Hv.
    destruct rest as [|d rest'].
    { destruct (set_piece ps pp value) as [ps'|] eqn:Es; [|discriminate].
      eapply IH; [|eassumption]. eapply set_piece_wf; eassumption. }
    destruct (d =? 46).
    { destruct (n =? 0); [discriminate|]. destruct (6 <? pp); [discriminate|].
      inversion H; subst. exact Hw. }
    destruct (d =? 58); [|discriminate].
    destruct rest' as [|e rest'']; [discriminate|].
    destruct (set_piece ps pp value) as [ps'|] eqn:Es; [|discriminate].
    eapply IH; [|eassumption]. eapply set_piece_wf; eassumption.
Qed.

Lemma v6_v4_wf f : forall inp ps pp seen ps' pp' seen',
  wf8 ps -> v6_v4 f inp ps pp seen = XOk (ps', pp', seen') -> wf8 ps'.
Proof.
  induction f as [|f IH]; intros inp ps pp seen ps' pp' seen' Hw H.
  - destruct inp; cbn [v6_v4] in H; [inversion H; subst; exact Hw | discriminate].
  - destruct inp as [|c r]; cbn [v6_v4] in H; [inversion H; subst; exact Hw|].
    destruct (if 0 <? seen then if (seen <? 4) && (c =? 46) then Some r else None else Some (c :: r)) as [inp1|];
      [|discriminate].
    destruct (read_dec inp1 None) as [[[v|] rest]|]; try discriminate.
    destruct (get_piece ps pp) as [old|]; [|discriminate].
    destruct (U16_MAX <? old * 256 + v) eqn:Eo; [discriminate|].
    destruct (set_piece ps pp (old * 256 + v)) as [ps1|] eqn:Es; [|discriminate].
    eapply IH; [|eassumption]. eapply set_piece_wf; [eassumption|exact Hw|]. unfold U16_MAX in Eo. lia.
Qed.

Lemma swap_pieces_wf ps i j ps' : swap_pieces ps i j = Some ps' -> wf8 ps -> wf8 ps'.
Proof.
  unfold swap_pieces. destruct (get_piece ps i) as [a|] eqn:Ea; [|discriminate].
  destruct (get_piece ps j) as [b|] eqn:Eb; [|discriminate].
  destruct (set_piece ps i b) as [ps1|] eqn:E1; [|discriminate]. intros E2 Hw.
  eapply set_piece_wf; [exact E2| |eapply get_piece_wf; eassumption].
  eapply set_piece_wf; [exact E1|exact Hw|eapply get_piece_wf; eassumption].
Qed.

Lemma v6_swaps_wf s : forall ps pp cp ps', v6_swaps s ps pp cp = XOk ps' -> wf8 ps -> wf8 ps'.
Proof.
  induction s as [|s IH]; intros ps pp cp ps' H Hw; cbn [v6_swaps] in H.
  - inversion H; subst. exact Hw.
  - destruct (swap_pieces ps pp (cp + N.of_nat (S s) - 1)) as [ps1|] eqn:E; [|discriminate].
    destruct (pp =? 0); [discriminate|]. eapply IH; [eassumption|]. eapply swap_pieces_wf; eassumption.
Qed.

Lemma v6_finish_wf ps pp cp ps' : v6_finish ps pp cp = XOk ps' -> wf8 ps -> wf8 ps'.
Proof.
  unfold v6_finish. destruct cp as [cp|].
  - destruct (pp <? cp); [discriminate|]. apply v6_swaps_wf.
  - destruct (pp =? 8); [|discriminate]. intros H; inversion H; subst. tauto.
Qed.

Lemma v6_tail_wf ex ps' : exit_wf ex -> v6_tail ex = XOk ps' -> wf8 ps'.
Proof.
  destruct ex as [ps pp cp|rest ps pp cp]; cbn [exit_wf v6_tail]; intros Hw H.
  - eapply v6_finish_wf; eassumption.
  - destruct (6 <? pp); [discriminate|].
    destruct (v6_v4 (length rest) rest ps pp 0) as [[[ps1 pp1] seen]| | |] eqn:E; cbn [xr_bind] in H; try discriminate.
    destruct (negb (seen =? 4)); [discriminate|].
    eapply v6_finish_wf; [eassumption|]. eapply v6_v4_wf; eassumption.
Qed.

Theorem parse_ipv6addr_wf input a : parse_ipv6addr input = XOk a -> wf8 a.
Proof.
  unfold parse_ipv6addr. destruct input as [|c0 [|c1 r2]]; try discriminate.
  destruct (c0 =? 58).
  - destruct (c1 =? 58); [|discriminate].
    destruct (v6_main (length r2) r2 v6_zero 1 (Some 1)) as [ex| | |] eqn:E; cbn [xr_bind]; try discriminate.
    apply v6_tail_wf. eapply v6_main_wf; [exact wf8_zero|exact E].
  - destruct (v6_main (length (c0 :: c1 :: r2)) (c0 :: c1 :: r2) v6_zero 0 None) as [ex| | |] eqn:E; cbn [xr_bind]; try discriminate.
    apply v6_tail_wf. eapply v6_main_wf; [exact wf8_zero|exact E].
Qed.

(* ---- IPv4: the result is a u32 ---- *)
Lemma ipv4_add_parts_bound numbers : forall counter ipv4 a,
  ipv4 <= U32_MAX -> ipv4_add_parts numbers counter ipv4 = XOk a -> a <= U32_MAX.
Proof.
  induction numbers as [|n r IH]; intros counter ipv4 a Hb H; cbn [ipv4_add_parts] in H.
  - inversion H; subst. exact Hb.
  - destruct (U32_MAX <? ipv4 + N.shiftl n (8 * (3 - counter)) mod 4294967296) eqn:E; [discriminate|].
    eapply IH; [|exact H]. lia.
Qed.

Theorem parse_ipv4addr_bound input a : parse_ipv4addr input = XOk a -> a < 4294967296.
Proof.
  unfold parse_ipv4addr.
  set (parts := match rev (split_dot_list input) with [] :: r => rev r | _ => split_dot_list input end).
  destruct (4 <? N.of_nat (length parts)); [discriminate|].
  destruct (ipv4_numbers parts) as [numbers|]; [|discriminate].
  destruct (rev numbers) as [|ipv4 rn]; [discriminate|].
  destruct (N.shiftr U32_MAX (8 * N.of_nat (length (rev rn))) <? ipv4) eqn:E; [discriminate|].
  destruct (existsb (fun x => 255 <? x) (rev rn)); [discriminate|].
  intros H. apply ipv4_add_parts_bound in H; [unfold U32_MAX in H; lia|].
  assert (N.shiftr U32_MAX (8 * N.of_nat (length (rev rn))) <= U32_MAX).
  { rewrite N.shiftr_div_pow2. apply N.div_le_upper_bound; [apply N.pow_nonzero; lia|].
    assert (2 ^ (8 * N.of_nat (length (rev rn))) <> 0) by (apply N.pow_nonzero; lia).
    unfold U32_MAX. nia. }
  lia.
Qed.
