(* Proofs/C09_LongRun.v - the agreement of Proofs/C09_Long.v lifted to the URL parser, and the URL-level theorems
   instantiated relative to IdnaOK (Proofs/Inst_Host.v) for the oracle ITSELF under IdnaOK2.

   A. A run of the parser model with a host parser hp1 that answers like hp2 or with Err E (on every input) is the
      run with hp2, or stops with PErr E: the parser calls Host::parse in three places (parse_host, get_file_host,
      parse_file_host) and passes every error on unchanged.
   B. With hp1 = host_parse (cap idna), hp2 = host_parse idna, E = IdnaError: a run on which no oracle answer is in
      the class Known_C10_long is the same run; `run_clean` is that premise.
   C. C09_inst2_*: the re-parse identity of C02 (classes (i)-(iv)).  (The alphabet theorems of C05 need only the first
      clause of the hypothesis - no premise about the class at all: Proofs/Inst_Host.v, section Alphabet.) *)
From RU Require Import Base.Prelude Base.Utf8 Model.HostT Model.Host Model.UrlRecord Model.Parser Model.WF
  Proofs.C09_Host Proofs.C09_Inst Proofs.C09_Long Proofs.C02_AuthParts Proofs.C02_AuthMain Proofs.Inst_Host.

Definition pres_or {A} (E : parse_error) (a b : pres A) : Prop := a = b \/ a = PErr E.

Lemma pres_or_refl {A} E (a : pres A) : pres_or E a a.
Proof. left. reflexivity. Qed.

Lemma pres_or_bind {A B} E (a b : pres A) (k1 k2 : A -> pres B) :
  pres_or E a b -> (forall x, pres_or E (k1 x) (k2 x)) -> pres_or E (pbind a k1) (pbind b k2).
Proof.
  intros [->| ->] K; [|right; reflexivity]. destruct b as [x| |]; cbn [pbind]; [apply K | left; reflexivity | left; reflexivity].
Qed.

Section Lift.
Variable dbg : bool.
Variable hp1 hp2 hpo : list N -> result host.
Variable hd : host -> list N.
Variable ovr : option (list N -> list N).
Variable E : parse_error.
Hypothesis HP : forall s, hp1 s = hp2 s \/ hp1 s = Err E.

Lemma hp_or s : pres_or E (of_result (hp1 s)) (of_result (hp2 s)).
Proof. destruct (HP s) as [->| ->]; [left | right]; reflexivity. Qed.

Lemma get_file_host_or l : pres_or E (get_file_host hp1 l) (get_file_host hp2 l).
Proof. unfold get_file_host. destruct (file_host l) as [h rem]. apply pres_or_bind; [apply hp_or | intros x; apply pres_or_refl]. Qed.

Lemma parse_host_or st l : pres_or E (parse_host hp1 hpo st l) (parse_host hp2 hpo st l).
Proof.
  unfold parse_host. destruct (st_is_file st); [apply get_file_host_or|].
  destruct (host_scan (st_is_special st) false [] l) as [h rem].
  destruct (scheme_type_eqb st STSpecialNotFile && match h with [] => true | _ :: _ => false end); [apply pres_or_refl|].
  destruct (negb (st_is_special st)); [apply pres_or_refl|].
  apply pres_or_bind; [apply hp_or | intros x; apply pres_or_refl].
Qed.

Lemma parse_file_host_or ser l : pres_or E (parse_file_host hp1 hd ser l) (parse_file_host hp2 hd ser l).
Proof.
  unfold parse_file_host. destruct (file_host l) as [h rem]. destruct h as [|c h']; [apply pres_or_refl|].
  apply pres_or_bind; [apply hp_or | intros x; apply pres_or_refl].
Qed.

Lemma parse_host_and_port_or ctx st se ser l :
  pres_or E (parse_host_and_port hp1 hpo hd ctx st se ser l) (parse_host_and_port hp2 hpo hd ctx st se ser l).
Proof. unfold parse_host_and_port. apply pres_or_bind; [apply parse_host_or | intros x; apply pres_or_refl]. Qed.

Lemma after_double_slash_or ctx st se ser l :
  pres_or E (after_double_slash dbg hp1 hpo hd ovr ctx st se ser l) (after_double_slash dbg hp2 hpo hd ovr ctx st se ser l).
Proof.
  unfold after_double_slash. apply pres_or_bind; [apply pres_or_refl | intros x]. destruct x as [[ser1 ue] remaining].
  apply pres_or_bind; [apply pres_or_refl | intros hs].
  apply pres_or_bind; [apply parse_host_and_port_or | intros y; apply pres_or_refl].
Qed.

Lemma parse_non_special_or ctx st se ser l :
  pres_or E (parse_non_special dbg hp1 hpo hd ovr ctx st se ser l) (parse_non_special dbg hp2 hpo hd ovr ctx st se ser l).
Proof.
  unfold parse_non_special. destruct (inp_split_prefix_str s_ss l); [apply after_double_slash_or | apply pres_or_refl].
Qed.

Lemma parse_relative_or ctx st base l :
  pres_or E (parse_relative dbg hp1 hpo hd ovr ctx st base l) (parse_relative dbg hp2 hpo hd ovr ctx st base l).
Proof.
  unfold parse_relative. destruct (inp_split_first l) as [first_char after]. destruct first_char as [c|]; [|apply pres_or_refl].
  destruct (c =? 63); [apply pres_or_refl|]. destruct (c =? 35); [apply pres_or_refl|].
  destruct ((c =? 47) || (c =? 92) && st_is_special st); [|apply pres_or_refl].
  destruct (inp_count_matching (fun d => (d =? 47) || (d =? 92) && st_is_special st) l) as [slashes remaining].
  destruct (2 <=? slashes); [|apply pres_or_refl].
  apply pres_or_bind; [apply pres_or_refl | intros u_].
  destruct (negb (st_is_special st)); [|apply after_double_slash_or].
  destruct (inp_split_prefix_str s_ss l); apply after_double_slash_or.
Qed.

Lemma parse_file_or ctx st base_file l :
  pres_or E (parse_file dbg hp1 hd ovr ctx st base_file l) (parse_file dbg hp2 hd ovr ctx st base_file l).
Proof.
  unfold parse_file. destruct (inp_split_first l) as [first_char after_first].
  destruct (match first_char with Some c => is_slash_or_bslash c | None => false end); [|apply pres_or_refl].
  destruct (inp_split_first after_first) as [next_char after_next].
  destruct (match next_char with Some c => is_slash_or_bslash c | None => false end); [|apply pres_or_refl].
  apply pres_or_bind; [apply parse_file_host_or | intros x; apply pres_or_refl].
Qed.

Lemma parse_with_scheme_or base scheme l :
  pres_or E (parse_with_scheme dbg hp1 hpo hd ovr base scheme l) (parse_with_scheme dbg hp2 hpo hd ovr base scheme l).
Proof.
  unfold parse_with_scheme. apply pres_or_bind; [apply pres_or_refl | intros se].
  destruct (scheme_type_of scheme).
  - apply parse_file_or.
  - destruct (inp_count_matching is_slash_or_bslash l) as [slashes remaining]. destruct base as [b|]; [|apply after_double_slash_or].
    destruct ((slashes <? 2) && list_eqb (b_scheme b) scheme); [|apply after_double_slash_or].
    apply pres_or_bind; [apply pres_or_refl | intros u_; apply parse_relative_or].
  - apply parse_non_special_or.
Qed.

Theorem parse_url_or base input :
  pres_or E (parse_url dbg hp1 hpo hd ovr base input) (parse_url dbg hp2 hpo hd ovr base input).
Proof.
  unfold parse_url. destruct (parse_scheme CUrlParser (input_new_trim_c0 input)) as [[scheme remaining]|];
    [apply parse_with_scheme_or|].
  destruct base as [b|]; [|apply pres_or_refl].
  destruct (inp_starts_with_char 35 (input_new_trim_c0 input)); [apply pres_or_refl|].
  destruct (cannot_be_a_base b) as [[|]|]; try apply pres_or_refl.
  destruct (st_is_file (scheme_type_of (b_scheme b))); [apply parse_file_or | apply parse_relative_or].
Qed.
End Lift.

(* in particular the run depends on the host parser through its values only.  parse_url_or at hp1 = hp2 gives the
   equation or "the hp1 run stops with PErr E" for any E; taken at two different errors, the second alternatives
   contradict each other *)
Theorem parse_url_ext dbg hp1 hp2 hpo hd ovr base input : (forall s, hp1 s = hp2 s) ->
  parse_url dbg hp1 hpo hd ovr base input = parse_url dbg hp2 hpo hd ovr base input.
Proof.
  intros H.
  destruct (parse_url_or dbg hp1 hp2 hpo hd ovr IdnaError (fun s => or_introl (H s)) base input) as [E|E]; [exact E|].
  destruct (parse_url_or dbg hp1 hp2 hpo hd ovr EmptyHost (fun s => or_introl (H s)) base input) as [E'|E']; [exact E'|].
  rewrite E in E'. discriminate E'.
Qed.

Section Cap.
Variable dbg : bool.
Variable idna : list N -> option (list N).

Notation hp := (host_parse idna).
Notation hpc := (host_parse (cap idna)).
Notation hpo := host_parse_opaque.
Notation hd := host_display.

(* the run of the parser model with the capped oracle is the run with the oracle itself, or stops with IdnaError
   (at the first host whose oracle answer is in the class) *)
Theorem parse_url_cap ovr base input :
  parse_url dbg hpc hpo hd ovr base input = parse_url dbg hp hpo hd ovr base input
  \/ parse_url dbg hpc hpo hd ovr base input = PErr IdnaError.
Proof. exact (parse_url_or dbg hpc hp hpo hd ovr IdnaError (cap_dichotomy idna) base input). Qed.

(* the per-run premise "no host of the run is in the class": the capped run does not stop with IdnaError where the
   run with the oracle itself goes on.  For a run that succeeds it says exactly that the capped run succeeds. *)
Definition run_clean (ovr : option (list N -> list N)) (base : option url) (input : list N) : Prop :=
  parse_url dbg hpc hpo hd ovr base input = parse_url dbg hp hpo hd ovr base input.

(* every success of the capped run is the same success of the run with the oracle itself, and that run is clean *)
Theorem parse_url_cap_ok ovr base input u :
  parse_url dbg hpc hpo hd ovr base input = POk u ->
  parse_url dbg hp hpo hd ovr base input = POk u /\ run_clean ovr base input.
Proof.
  intros H. unfold run_clean. destruct (parse_url_cap ovr base input) as [Ex|Ex].
  - split; [rewrite <- Ex; exact H | exact Ex].
  - rewrite Ex in H. discriminate.
Qed.

Lemma parse_url_cap_run ovr base input u :
  parse_url dbg hpc hpo hd ovr base input = POk u -> parse_url dbg hp hpo hd ovr base input = POk u.
Proof. intros H. exact (proj1 (parse_url_cap_ok ovr base input u H)). Qed.

Lemma run_clean_ok ovr base input u :
  parse_url dbg hp hpo hd ovr base input = POk u -> run_clean ovr base input ->
  parse_url dbg hpc hpo hd ovr base input = POk u.
Proof. intros H C. unfold run_clean in C. rewrite C. exact H. Qed.

(* a re-parse that succeeds with the capped oracle is the re-parse with the oracle itself, and a clean run; Q: whatever
   else the theorem at the capped oracle says of the record *)
Lemma reparse_transfer u (Q : Prop) :
  parse_url dbg hpc hpo hd None None (utf8_lossy (ser u)) = POk u /\ Q ->
  parse_url dbg hp hpo hd None None (utf8_lossy (ser u)) = POk u /\ run_clean None None (utf8_lossy (ser u)) /\ Q.
Proof. intros [F q]. destruct (parse_url_cap_ok None None _ u F) as [F' C]. exact (conj F' (conj C q)). Qed.

(* a run is clean exactly if an IdnaError of the capped run is an IdnaError of the run itself; so a run that does
   not stop with IdnaError under the capped oracle is clean *)
Lemma run_clean_iff ovr base input :
  run_clean ovr base input <->
  (parse_url dbg hpc hpo hd ovr base input = PErr IdnaError -> parse_url dbg hp hpo hd ovr base input = PErr IdnaError).
Proof.
  unfold run_clean. split.
  - intros C H. rewrite <- C. exact H.
  - intros H. destruct (parse_url_cap ovr base input) as [Ex|Ex]; [exact Ex|]. rewrite Ex, (H Ex). reflexivity.
Qed.

Hypothesis OK : IdnaOK2 idna.
Let OKc : IdnaOK (cap idna) := IdnaOK2_cap idna OK.

(* C02, classes (i)-(iv): every URL parsed without a base whose scheme is not "file", on a clean run, re-parses from its
   serialization to the same record - the re-parse being a run with the oracle itself (and a clean one) *)
Theorem reparse_nonfile_model2 input u : usv_list input -> nonfile_input input = true ->
  parse_url dbg hp hpo hd None None input = POk u -> run_clean None None input ->
  parse_url dbg hp hpo hd None None (utf8_lossy (ser u)) = POk u /\ run_clean None None (utf8_lossy (ser u))
  /\ wf_b u = true /\ ascii (ser u).
Proof.
  intros Hu Hc Hp C.
  exact (reparse_transfer u _ (reparse_nonfile_model dbg (cap idna) OKc input u Hu Hc (run_clean_ok None None input u Hp C))).
Qed.

End Cap.

(* the records of C05 that need the first clause of the hypothesis only (Proofs/C09_Inst.v), under IdnaOK2 *)
Section Alphabet.
Variable idna : list N -> option (list N).
Hypothesis OK : IdnaOK2 idna.

Notation hp := (host_parse idna).
Notation hpo := host_parse_opaque.
Notation hd := host_display.

Theorem model_host_above2 : host_above hp hpo hd.
Proof. exact (model_host_above_out idna (idna2_out idna OK)). Qed.
End Alphabet.
