(* Proofs/C02_AuthWf.v - the canonical record of the classes with authority satisfies the structural
   invariant wf_b (L1, structural part) and is not cannot-be-a-base. *)
From RU Require Import Base.Prelude Model.HostT Model.UrlRecord Model.Parser Model.WF Proofs.ListN Proofs.C02_Parts
  Proofs.C02_Opaque Proofs.C02_PathL1 Proofs.C02_AuthParts Proofs.C02_Auth.

Ltac nl := repeat first [rewrite nlen_app | rewrite nlen_cons | rewrite nlen_nil]; lia.

Definition head_is (Z : list N) (d : N) : bool := match Z with c :: _ => c =? d | [] => false end.

Lemma byte_eqb_head X Z i d : i = nlen X -> byte_eqb (X ++ Z) i d = head_is Z d.
Proof.
  intros ->. unfold byte_eqb, nnth, nlen. rewrite Nat2N.id. rewrite nth_error_app2 by lia. rewrite Nat.sub_diag.
  destruct Z; reflexivity.
Qed.

(* the userinfo clauses of wf_authority *)
Lemma wf_ui_clause A ui Z : ui_ok ui -> (ui = UNone -> head_is Z 58 = false) ->
  let s := A ++ ui_text ui ++ Z in
  let ue := nlen A + ui_ulen ui in
  let hs := nlen A + nlen (ui_text ui) in
  (if ue =? hs then ue =? nlen A
   else if byte_eqb s ue 58 then (ue + 2 <=? hs) && byte_eqb s (hs - 1) 64
        else byte_eqb s ue 64 && (hs =? ue + 1))
  && (if ue =? hs then negb (byte_eqb s ue 58) else true) = true.
Proof.
  intros Hok HZ s ue hs. subst s ue hs. destruct ui as [|u|u p]; cbn [ui_ok ui_text ui_ulen] in *.
  - rewrite nlen_nil, N.eqb_refl. cbn [app]. rewrite (byte_eqb_head A Z) by lia. rewrite (HZ eq_refl).
    replace (nlen A + 0 =? nlen A) with true by lia. reflexivity.
  - replace (nlen A + nlen u =? nlen A + nlen (u ++ [64])) with false by nl.
    replace (A ++ (u ++ [64]) ++ Z) with ((A ++ u) ++ 64 :: Z) by (rewrite <- !app_assoc; reflexivity).
    rewrite (byte_eqb_head (A ++ u) (64 :: Z) (nlen A + nlen u) 58) by (rewrite nlen_app; reflexivity).
    cbn [head_is]. replace (64 =? 58) with false by reflexivity.
    rewrite (byte_eqb_head (A ++ u) (64 :: Z) (nlen A + nlen u) 64) by (rewrite nlen_app; reflexivity).
    cbn [head_is]. replace (64 =? 64) with true by reflexivity. cbn [andb].
    rewrite andb_true_r. nl.
  - destruct Hok as (_ & _ & Hne).
    assert (0 < nlen p) as Hp by (destruct p; [contradiction | rewrite nlen_cons; lia]).
    replace (nlen A + nlen u =? nlen A + nlen (u ++ 58 :: p ++ [64])) with false by nl.
    replace (A ++ (u ++ 58 :: p ++ [64]) ++ Z) with ((A ++ u) ++ 58 :: p ++ 64 :: Z)
      by (rewrite <- !app_assoc; cbn [app]; rewrite <- !app_assoc; reflexivity).
    rewrite byte_eqb_head by (rewrite nlen_app; reflexivity). cbn [head_is].
    replace (58 =? 58) with true by reflexivity.
    replace ((A ++ u) ++ 58 :: p ++ 64 :: Z) with (((A ++ u) ++ 58 :: p) ++ 64 :: Z) by (rewrite <- !app_assoc; reflexivity).
    rewrite byte_eqb_head by nl. cbn [head_is]. replace (64 =? 64) with true by reflexivity.
    rewrite !andb_true_r. nl.
Qed.

(* the port clause *)
Lemma wf_port_clause Bf pt Z dflt : port_ok dflt pt ->
  let s := Bf ++ port_text pt ++ Z in
  let he := nlen Bf in
  let ps := nlen Bf + nlen (port_text pt) in
  match pt with
  | None => ps =? he
  | Some p => byte_eqb s he 58
              && list_eqb (nfirstn (ps - (he + 1)) (nskipn (he + 1) s)) (decimal p)
              && (ps =? he + 1 + nlen (decimal p))
              && (p <=? 65535)
  end = true.
Proof.
  intros Hok s he ps. subst s he ps. destruct pt as [p|]; cbn [port_text port_ok] in *.
  - destruct Hok as [Hp _]. rewrite byte_eqb_head by reflexivity. cbn [app head_is].
    replace (58 =? 58) with true by reflexivity. rewrite nskipn_app_add.
    change (nskipn 1 (58 :: decimal p ++ Z)) with (decimal p ++ Z).
    replace (nlen Bf + nlen (58 :: decimal p) - (nlen Bf + 1)) with (nlen (decimal p)) by (rewrite nlen_cons; lia).
    rewrite nfirstn_app_len, list_eqb_refl. rewrite nlen_cons. cbn [andb].
    replace (nlen Bf + (1 + nlen (decimal p)) =? nlen Bf + 1 + nlen (decimal p)) with true by lia.
    replace (p <=? 65535) with true by lia. reflexivity.
  - rewrite nlen_nil. lia.
Qed.

Lemma pth_text_no_qh p : pth_ok p -> forallb (fun c => negb ((c =? 63) || (c =? 35))) (pth_text p) = true.
Proof. destruct p as [[segs last]|]; [|reflexivity]. intros [Hs Hl]. apply path_text_no_qh; assumption. Qed.

Section AuthWf.
Variable hp hpo : list N -> result host.
Variable hd : host -> list N.
Hypothesis HOK : HostRT hp hpo hd.

Lemma host_head st h pt X : host_ok hp hpo hd st h -> (h = HDomain [] -> pt = None) -> tail_ok X ->
  head_is (hd h ++ port_text pt ++ X) 58 = false.
Proof.
  intros [[-> _]|(Hne & Ht & _)] Hemp HX.
  - rewrite (Hemp eq_refl). rewrite (hd_empty hp hpo hd HOK). cbn [port_text app].
    destruct X as [|c r]; [reflexivity|]. cbn [tail_ok head_is] in *. lia.
  - destruct (host_text_facts _ Ht) as [_ H58]. destruct Ht as (_ & Hnn & _).
    destruct (hd h) as [|c r]; [contradiction|]. exact H58.
Qed.

Theorem auth_url_wf st sch ui h pt p q f : auth_ok hp hpo hd st sch ui h pt p q f ->
  wf_b (auth_url hd sch ui h pt p q f) = true
  /\ cannot_be_a_base (auth_url hd sch ui h pt p q f) = Some false.
Proof.
  intros K. destruct K as [Ksch Kst Kui Kh Kemp Kpt Kp Kq Kf Kb Kbq Kbf].
  pose proof (pth_tail p _ (qf_text_qh q f)) as Htail.
  set (A := sch ++ [58; 47; 47]). set (U := ui_text ui). set (Hh := hd h). set (Pt := port_text pt).
  set (T := pth_text p). set (Q := qf_text q f).
  assert (nlen A = nlen sch + 3) as EA by (unfold A; nl).
  assert (auth_ser hd sch ui h pt p q f = sch ++ 58 :: 47 :: 47 :: U ++ Hh ++ Pt ++ T ++ Q) as Eshape by apply auth_ser_shape.
  assert (auth_ser hd sch ui h pt p q f = A ++ U ++ Hh ++ Pt ++ T ++ Q) as Eser
    by (rewrite Eshape; unfold A; rewrite <- app_assoc; reflexivity).
  pose proof (ui_ulen_le ui) as UL. fold U in UL.
  split.
  - unfold wf_b. apply andb_true_iff. split; [apply andb_true_iff; split|].
    + exact (wf_scheme_canon sch _ (auth_url hd sch ui h pt p q f) Ksch Eshape eq_refl).
    + assert (has_authority_b (auth_url hd sch ui h pt p q f) = true) as Hha.
      { unfold has_authority_b, auth_url. cbn [ser scheme_end]. rewrite Eshape. rewrite nskipn_app_len. reflexivity. }
      rewrite Hha. unfold wf_authority, auth_url.
      cbn [ser scheme_end username_end host_start host_end hosti port path_start].
      rewrite front_len. fold U Hh Pt. rewrite Eser.
      pose proof (wf_ui_clause A ui (Hh ++ Pt ++ T ++ Q) Kui
                    (fun _ => host_head st h pt (T ++ Q) Kh (fun E => proj2 (Kemp E)) Htail)) as CU.
      cbv zeta in CU. fold U in CU. rewrite EA in CU. apply andb_true_iff in CU. destruct CU as [C6 C7].
      pose proof (wf_port_clause (A ++ U ++ Hh) pt (T ++ Q) _ Kpt) as CP. cbv zeta in CP. fold Pt in CP.
      rewrite <- !app_assoc in CP. rewrite !nlen_app, EA in CP.
      assert (nlen (A ++ U ++ Hh ++ Pt ++ T ++ Q) = nlen sch + 3 + nlen U + nlen Hh + nlen Pt + nlen (T ++ Q)) as EN
        by (rewrite !nlen_app, EA; lia).
      repeat (apply andb_true_iff; split).
      * lia.
      * lia.
      * lia.
      * lia.
      * rewrite EN. lia.
      * exact C6.
      * exact C7.
      * destruct Kh as [[-> _]|(Hne & _)].
        -- cbn [hi_of_host]. unfold Hh. rewrite (hd_empty hp hpo hd HOK). rewrite nlen_nil. lia.
        -- destruct h as [[|d0 d]|a|pcs]; try reflexivity. contradiction.
      * replace (nlen sch + 3 + nlen U + nlen Hh + nlen Pt) with (nlen sch + 3 + (nlen U + nlen Hh) + nlen Pt) by lia.
        replace (nlen sch + 3 + nlen U + nlen Hh) with (nlen sch + 3 + (nlen U + nlen Hh)) by lia. exact CP.
      * rewrite EN.
        replace (A ++ U ++ Hh ++ Pt ++ T ++ Q) with ((A ++ U ++ Hh ++ Pt) ++ T ++ Q) by (rewrite <- !app_assoc; reflexivity).
        rewrite !byte_eqb_head by (rewrite !nlen_app, EA; lia).
        change (tail_ok (T ++ Q)) in Htail. clear CP C6 C7 EN. revert Htail.
        destruct (T ++ Q) as [|c r]; intros Htail; [rewrite nlen_nil; replace (_ =? _) with true by lia; reflexivity|].
        cbn [tail_ok head_is] in *. rewrite <- !orb_assoc. apply orb_true_iff. right. rewrite !orb_assoc. exact Htail.
    + apply (wf_qf_generic_st st (auth_front hd sch ui h pt) T q f).
      * reflexivity.
      * reflexivity.
      * reflexivity.
      * reflexivity.
      * apply pth_text_no_qh. exact Kp.
      * exact Kq.
  - unfold cannot_be_a_base, u_slice_from, auth_url. cbn [ser scheme_end]. rewrite Eshape.
    rewrite slice_from_o_some by nl.
    replace (sch ++ 58 :: 47 :: 47 :: U ++ Hh ++ Pt ++ T ++ Q) with ((sch ++ [58]) ++ 47 :: 47 :: U ++ Hh ++ Pt ++ T ++ Q)
      by (rewrite <- app_assoc; reflexivity).
    replace (nlen sch + 1) with (nlen (sch ++ [58])) by nl. rewrite nskipn_app_len. reflexivity.
Qed.

End AuthWf.
