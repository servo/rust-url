(* Proofs/C07_EqFileAll.v - the clauses of the C07 statement with file inputs included: parsing (no base) yields records related by
   corrS for EVERY scalar-value input outside Known_C01, inputs whose scheme is "file" included, and the href setter is
   the Standard's for every value outside Known_C01, "file:" values included.
     C01 side   : statement_all5 (Proofs/C01_EqFileCover2.v, = C01_statement_all3), which covers the file inputs inside
                  the recogniser k_file_ok; its host hypothesis host_hyp5 asks, beyond host_hyp3, that the two host
                  parsers agree on whether the file host is "localhost" (host_local_ok);
     model side : Proofs/C07_FileShape.v (a file record has "//", no credentials, no port, the scheme "file"),
                  Proofs/C03_ReachFile.v (wf_b, host text facts);
     bridge     : related_corr0 of Proofs/C07_EqRel.v for corr; `sane` for a file record from spec_valid (no credentials,
                  no port) and from "//" on the model side (the host is not null); a special record with the empty host is
                  a file record.
   The one-step theorems of the ten setters are stated for every corrS pair (file records: the host, hostname
   and pathname setters are class 4 of Known_C07), so the three clauses of C07_statement follow without the premise
   input_is_file = false. *)
From Coq Require Import Bool.
From RU Require Import Base.Prelude Base.Utf8 Model.AsciiSet Gen.Tables Model.PercentEncoding
  Model.HostT Model.Host Model.UrlRecord Model.Parser Model.Setters Model.WF Model.KnownC01 Model.KnownC07
  Spec.Whatwg Spec.WhatwgHost Spec.WhatwgHostParse
  Proofs.ListN Proofs.C03_WF Proofs.C06_Suffix Proofs.C06_Host Proofs.C08_Input
  Proofs.C02_Enc Proofs.C01_Tables Proofs.C01_EqRun Proofs.C01_EqEnc Proofs.C01_EqApi Proofs.C01_EqRef
  Proofs.C01_EqAuthModel Proofs.C01_EqSpModel Proofs.C01_EqRelArms Proofs.C01_EqSpBase
  Proofs.C01_EqAsm Proofs.C01_EqShape Proofs.C01_KnownExact Proofs.C01_EqCover
  Proofs.C01_EqFile Proofs.C01_EqFileSpec Proofs.C01_EqFileAsm Proofs.C01_EqFileHost Proofs.C01_EqFileCover Proofs.C01_EqFileCover2
  Proofs.C03_ReachParts Proofs.C03_ReachFile Proofs.C09_Host Proofs.C09_InstWf Proofs.C09_RealC01
  Proofs.C07_Defs Proofs.C07_Histories Proofs.C07_Corr Proofs.C07_SpecProto Proofs.C07_EqProto Proofs.C07_EqSix
  Proofs.C07_EqFive Proofs.C07_EqHostname Proofs.C07_EqSeven
  Proofs.C07_EqRel Proofs.C07_SpecInv Proofs.C07_ParseExtra Proofs.C07_EqParseAll Proofs.C07_HostReal
  Proofs.C07_SpecInvU Proofs.C07_HostOn Proofs.C07_AllOn Proofs.C07_FileShape.

(* the host hypothesis: the two host parsers agree on "is localhost" *)
Definition host_local_ok (hp : list N -> result host) (shp : bool -> list N -> option spec_host) (s : list N) : Prop :=
  match hp s, host_parsing shp false s with
  | Ok h, Some sh => is_localhost_m h = is_localhost_s sh
  | _, _ => True
  end.

Definition host_parse_ok_onF (hp ho : list N -> result host) (hd : host -> list N)
           (shp : bool -> list N -> option spec_host) (shs : spec_host -> list N) : Prop :=
  host_parse_ok_on hp ho hd shp shs /\ (forall s, usv_list s -> host_local_ok hp shp s).

(* the same over all strings (host_parse_ok of Proofs/C07_EqParseAll.v) *)
Definition host_parse_okF (hp ho : list N -> result host) (hd : host -> list N)
           (shp : bool -> list N -> option spec_host) (shs : spec_host -> list N) : Prop :=
  host_parse_ok hp ho hd shp shs /\ (forall s, host_local_ok hp shp s).

Lemma host_parse_ok_onF_of_all hp ho hd shp shs : host_parse_okF hp ho hd shp shs -> host_parse_ok_onF hp ho hd shp shs.
Proof. intros [A B]. split; [exact (host_parse_ok_on_of_all hp ho hd shp shs A) | intros s _; exact (B s)]. Qed.

(* `sane` from corr *)
Section Sane.
Variable dbg : bool.
Variable shs : spec_host -> list N.

Theorem corr_sane u su : corr dbg shs u su -> spec_valid su ->
  (has_host u = false -> has_authority_b u = true ->
   username_end u = host_start u /\ port u = None /\ (is_special su = false \/ su_scheme su = str_file)) ->
  (is_special su = true -> opt_is_some (su_host su) = true) ->
  sane su.
Proof.
  intros C Hval XN Hsp.
  pose proof (co_wf _ _ _ _ C) as W.
  pose proof (co_hh _ _ _ _ C) as Chh. pose proof (co_auth _ _ _ _ C) as Cau.
  pose proof (co_at _ _ _ _ C) as Cat. pose proof (co_port _ _ _ _ C) as Cpo.
  constructor.
  - unfold cannot_have_username_password_port.
    destruct (list_eqb (su_scheme su) str_file) eqn:Hf.
    + intros _. apply list_eqb_spec in Hf. destruct Hval as [_ V2]. destruct (V2 Hf) as (A & B & D).
      split; [exact D|]. unfold includes_credentials. rewrite A, B. reflexivity.
    + rewrite orb_false_r. intros Hc.
      rewrite Hc in Chh. cbn [negb] in Chh. rewrite <- Cpo, <- Cat.
      destruct (has_authority_b u) eqn:Ha.
      * destruct (XN Chh eq_refl) as (E1 & E2 & _). rewrite E1, E2, N.eqb_refl. split; reflexivity.
      * split; [exact (nf_port (wf_noauth_facts u W Ha)) | reflexivity].
  - intros Hs. pose proof (Hsp Hs) as Hh. destruct (su_host su) as [h|] eqn:Esh; [|discriminate Hh].
    split; [reflexivity|]. intros Hnf. cbn [host_is_null host_is_empty orb] in *.
    destruct h; try reflexivity. exfalso. cbn [negb opt_is_some] in *.
    destruct (XN Chh Cau) as (_ & _ & [E3|E3]); [congruence|].
    rewrite E3 in Hnf. discriminate Hnf.
  - intros Ho. destruct Hval as [V1 _]. exact (proj1 (V1 Ho)).
Qed.
End Sane.

Section AllF.
Variable dbg : bool.
Variable hp ho : list N -> result host.
Variable hd : host -> list N.
Variable shp : bool -> list N -> option spec_host.
Variable shs : spec_host -> list N.
Hypothesis HP : host_parse_ok_onF hp ho hd shp shs.

Lemma host_agree_file_on s : usv_list s -> host_agree_file hp hd shp shs s.
Proof.
  intros Hs. destruct HP as [HO HL]. split; [exact (proj2 (proj2 HO))|].
  split; [exact (host_agree_sp_on hp ho hd shp shs HO s Hs) | exact (HL s Hs)].
Qed.

Lemma host_hyp5_on input : usv_list input -> host_hyp5 hp ho hd shp shs None input.
Proof.
  intros Hu. split; [exact (host_hyp3_on hp ho hd shp shs (proj1 HP) None input Hu)|]. split.
  - intros _. apply host_agree_file_on. apply class_host_text_f_usv. exact Hu.
  - intros H. discriminate H.
Qed.

(* parsing a "file:" input outside Known_C01 yields corrS *)
Theorem parse_file_corrS input u : usv_list input -> known_c01 None input = 0 -> input_is_file input = true ->
  parse_url dbg hp ho hd None None input = POk u ->
  exists su, spec_basic_url_parse shp input None = BDone su /\ corrS dbg shs u su.
Proof.
  intros Hu Hk Hif Hp.
  destruct (parsed_full_base dbg hp ho hd shp shs input u
              (statement_all5 dbg hp ho hd shp shs input None None Hu I Hk (host_hyp5_on input Hu)) Hp)
    as (su & Hs & [[R Hok] Hshape]).
  exists su. split; [exact Hs|].
  destruct HP as (HO & HL). pose proof HO as (HF & HW & HE).
  unfold input_is_file in Hif.
  destruct (parse_scheme CUrlParser (input_new_trim_c0 input)) as [[sch rem]|] eqn:Es; [|discriminate Hif].
  pose proof (parse_url_file_shaped dbg hp ho hd None input sch rem u Es Hif Hp) as FS.
  destruct (parse_url_wf_all dbg hp ho hd None HW None input u I Hp) as [W HT].
  destruct (file_shaped_facts u W FS) as (F1 & F2 & F3 & F4 & F5).
  pose proof (rel_sch _ _ _ _ R) as Rsch. rewrite F1 in Rsch.
  destruct (spec_parse_uinv shp input su Hs) as [_ UP].
  pose proof (spec_parse_hostU shp input su Hu Hs) as UH.
  assert (corr dbg shs u su) as C.
  { apply related_corr0; [exact R|]. constructor.
    - exact HT.
    - intros un Hun. rewrite (noauth_username dbg u un W F5 Hun). reflexivity.
    - exact UP.
    - unfold hostU in UH. destruct (su_host su) as [h|]; [|exact I].
      destruct UH as [->|(o & s & U1 & U2 & E)]; [left; reflexivity | exact (range_text_on hp ho hd shp shs HO o s h U1 U2 E)].
    - exact HE. }
  split; [exact C|]. apply (corr_sane dbg shs u su C (rel_valid _ _ _ _ R)).
  - intros _ _. split; [exact F3|]. split; [exact F4|]. right. symmetry. exact Rsch.
  - intros _. rewrite <- (co_auth _ _ _ _ C). exact F2.
Qed.

(* every input outside Known_C01 *)
Theorem parse_all_corrS_F input u : usv_list input -> known_c01 None input = 0 ->
  parse_url dbg hp ho hd None None input = POk u ->
  exists su, spec_basic_url_parse shp input None = BDone su /\ corrS dbg shs u su.
Proof.
  intros Hu Hk Hp. destruct (input_is_file input) eqn:Hif.
  - exact (parse_file_corrS input u Hu Hk Hif Hp).
  - exact (parse_all_corrS_on dbg hp ho hd shp shs (proj1 HP) input u Hu Hk Hif Hp).
Qed.

(* href: every value outside Known_C01 whose URL fits u32 *)
Theorem href_step_F u su v : corrS dbg shs u su -> usv_list v -> known_c07 u QHref v = 0 -> href_fits shp shs v ->
  exists u' su', model_set dbg hp ho hd QHref u v = Some u' /\ spec_step shp QHref su v = Some su'
    /\ corrS dbg shs u' su'.
Proof.
  intros C Hv Hk Hfit. pose proof (href_outside_known u v Hk) as Hk1.
  apply (href_of_agreement dbg hp ho hd shp shs u su v C Hfit).
  - exact (proj1 (statement_all5 dbg hp ho hd shp shs v None None Hv I Hk1 (host_hyp5_on v Hv))).
  - intros u' Hp. exact (parse_all_corrS_F v u' Hv Hk1 Hp).
Qed.

(* all ten setters *)
(* any value for the nine setters other than href; for href a value whose URL fits u32 *)
Definition all_okF (s : qsetter) (v : list N) : Prop := s <> QHref \/ href_fits shp shs v.

Fixpoint all_opsF (ops : list (qsetter * list N)) : Prop :=
  match ops with
  | [] => True
  | (s, v) :: r => all_okF s v /\ usv_list v /\ all_opsF r
  end.

Theorem all_step_F u su s v : corrS dbg shs u su -> all_okF s v -> usv_list v -> known_c07 u s v = 0 ->
  exists u' su', model_set dbg hp ho hd s u v = Some u' /\ spec_step shp s su v = Some su' /\ corrS dbg shs u' su'.
Proof.
  intros C Hs Hv Hk. destruct (no_href s) eqn:Hn.
  - exact (no_href_step dbg hp ho hd shp shs (proj1 (proj1 HP)) u su s v C Hn Hv Hk).
  - destruct s; try discriminate Hn. destruct Hs as [Hs|Hs]; [contradiction|].
    exact (href_step_F u su v C Hv Hk Hs).
Qed.

Theorem all_from_parse_F input u ops : usv_list input -> known_c01 None input = 0 ->
  parse_url dbg hp ho hd None None input = POk u ->
  all_opsF ops -> outside_known dbg hp ho hd u ops ->
  exists su, spec_basic_url_parse shp input None = BDone su
    /\ model_api dbg u = Some (spec_api_list shs su)
    /\ forall n, exists u' su',
         model_run dbg hp ho hd u (firstn n ops) = Some u'
         /\ spec_run shp su (firstn n ops) = Some su'
         /\ model_api dbg u' = Some (spec_api_list shs su').
Proof.
  intros Hu Hk Hp.
  exact (usv_api dbg hp ho hd shp shs (corrS dbg shs) (corrS_api dbg shs) all_okF all_opsF (fun _ _ _ H => H) all_step_F
           _ ops u (parse_all_corrS_F input u Hu Hk Hp)).
Qed.

Theorem statement_all_onF :
  exists R : url -> spec_url -> Prop,
    (forall u su, R u su -> model_api dbg u = Some (spec_api_list shs su))
    /\ (forall input u, usv_list input -> known_c01 None input = 0 ->
          parse_url dbg hp ho hd None None input = POk u ->
          exists su, spec_basic_url_parse shp input None = BDone su /\ R u su)
    /\ (forall u su s v, R u su -> all_okF s v -> usv_list v -> known_c07 u s v = 0 ->
          exists u' su', model_set dbg hp ho hd s u v = Some u' /\ spec_step shp s su v = Some su' /\ R u' su').
Proof.
  exists (corrS dbg shs). split; [exact (corrS_api dbg shs)|].
  split; [exact parse_all_corrS_F | exact all_step_F].
Qed.

End AllF.

(* the real host functions, relative to IdnaOut *)
Theorem real_host_parse_ok_onF_out idna : IdnaOut idna ->
  host_parse_ok_onF (host_parse idna) host_parse_opaque host_display (spec_host_parser idna) spec_host_serializer.
Proof.
  intros OUT. split; [exact (real_host_parse_ok_on_out idna OUT)|].
  intros s Hs. exact (proj2 (proj2 (host_agree_file_real idna OUT s Hs))).
Qed.

(* abstract host functions that meet host_parse_okF *)
Theorem ok_host_parse_okF : host_parse_okF ok_hp ok_ho toy_hd ok_shp toy_shs.
Proof.
  split; [exact ok_host_parse_ok|]. intros [|c r]; unfold host_local_ok, host_parsing, ok_hp, ok_shp; [exact I|].
  destruct (bad_text (c :: r)); [exact I | reflexivity].
Qed.
