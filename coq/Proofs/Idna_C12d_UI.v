(* Proofs/Idna_C12d_UI.v - C12, clause ui: for every accepted name d (outside Known_C12 and Known_C10_long) and EVERY
   display policy p, ToASCII of the UTF-8 form of to_user_interface d p is the ASCII form of d, and to_user_interface
   reports no error.
   to_user_interface writes, label by label, either the Unicode text or the ASCII text of the pair (buffer label, entry)
   - which one is the policy's choice (uni1 of Proofs/Idna_WalkFun.v; the tld and the bidi verdict handed to the policy
   are whatever they are: nothing below depends on them) - and the label step turns either text back into the buffer
   label with an entry for which ToASCII writes the old ASCII text: pair_rtu2 (Proofs/Idna_C12d_Round.v) for the Unicode
   text, pair_rt2 (Proofs/Idna_C12c_UofA.v) for the ASCII text. *)
From RU Require Import Base.Prelude Base.Utf8 Base.Utf8Facts Base.U32_c13 Gen.Tables Model.Punycode Model.Uts46
  Proofs.C13_Ascii Proofs.Idna_Sim Proofs.Idna_Api Proofs.Idna_Known Proofs.Idna_Hyp Proofs.Idna_Redisc
  Proofs.Idna_C10_Deny Proofs.Idna_C10_Puny Proofs.Idna_C10_Prefix Proofs.Idna_C10_Inner Proofs.Idna_C10_Walk
  Proofs.Idna_C10b_Long Proofs.Idna_C10b_AsciiInner Proofs.Idna_C10b_AsciiWalk Proofs.Idna_C10b_Stmt
  Proofs.Idna_WalkFun Proofs.Idna_WalkInv Proofs.Idna_WalkApi Proofs.Idna_WalkEnc Proofs.Idna_PunyRT
  Proofs.Idna_C10c_Puny Proofs.Idna_C10c_Start Proofs.Idna_C10c_Drun Proofs.Idna_C10c_Loop Proofs.Idna_C10c_Rerun
  Proofs.Idna_C10c_Idem Proofs.Idna_C10c_Example Proofs.Idna_Mark Proofs.Idna_C12 Proofs.Idna_C12b_Stmt3
  Proofs.Idna_C10d_CaseLabel Proofs.Idna_C10d_CaseLoop Proofs.Idna_C10d_Case Proofs.Idna_C12c_Virtual Proofs.Idna_C12c_UofA
  Proofs.Idna_C12c_Stmt4 Proofs.Idna_C12c_ULabel Proofs.Idna_C12c_Round Proofs.Idna_C12d_EncDec Proofs.Idna_C12d_Round.

(* a choice function that writes Unicode for every ASCII label (every uni1 of the marking mode is one) *)
Definition uni_ok (uni : list N -> bool) : Prop := forall l, uni l = false -> is_ascii_l l = false.
Lemma uni1_ok p tld bd : uni_ok (uni1 false p tld bd).
Proof.
  intros l H. unfold uni1, pp1 in H. destruct (classify_for_punycode l) eqn:E; try discriminate H.
  exact (classify_unicode_nonascii l E).
Qed.

Lemma out_label_cases cfg uni dbl e : uni_ok uni ->
  out_label cfg uni dbl e = out_label cfg uT dbl e \/ out_label cfg uni dbl e = out_label cfg is_ascii_l dbl e.
Proof.
  intros Hu. destruct (uni dbl) eqn:E.
  - left. destruct e; cbn [out_label uT]; rewrite ?E; reflexivity.
  - right. pose proof (Hu dbl E) as Ha. destruct e; cbn [out_label]; rewrite ?E, ?Ha; reflexivity.
Qed.

Section UI.
Variable A : adapter.
Variable cfg : bool.
Variable deny : N.
Variable hy : hyphens.
Hypothesis HU : DenyUpper deny.
Hypothesis HL : LdhFree deny.
Hypothesis HOK : AdapterOK A.
Hypothesis HUSV : AdapterUSV A.
Hypothesis HNT : NvNoTrunc A.
Hypothesis HNI : NvIdem A.
Hypothesis HNM : AsciiNoMark A.
Hypothesis HMP : MapPrefix A.
Hypothesis HMF : NvMapFix A.
Hypothesis HNG : NvNoGrow A.

Notation PairOK := (PairOK A cfg deny hy).
Notation pres := (pres A cfg deny hy).
Notation proc_all := (proc_all A cfg deny hy).

(* the ASCII text written for a pair: all ASCII, and the entry of the second run writes it again *)
Lemma pair_asc dbl e o : PairOK dbl e -> out_label cfg is_ascii_l dbl e = inl o ->
  Forall (fun b => b < 128) o /\ out_label cfg is_ascii_l dbl (e2_of dbl e o) = inl o.
Proof.
  intros HP Ho.
  destruct HP as [m Han Hn Hacc|m dec dbl Ha Hn Hp Hc Hd Hapd Hchk Hna|dbl Hnv Hg Hchk Hu Hpre]; cbn [out_label] in Ho.
  - inversion Ho. subst o. destruct Han as [Ha _]. split; [exact (Idna_C10b_AsciiWalk.lower_ascii m Ha)|].
    cbn [e2_of out_label]. rewrite lower_lower. reflexivity.
  - rewrite Hna in Ho. inversion Ho. subst o. split; [exact (Idna_C10b_AsciiWalk.lower_ascii m Ha)|].
    cbn [e2_of out_label]. rewrite Hna, lower_lower. reflexivity.
  - destruct (is_ascii_l dbl) eqn:Easc.
    + inversion Ho. subst o. pose proof (is_ascii_l_spec dbl Easc) as Ha. split; [exact Ha|].
      cbn [e2_of]. rewrite Easc. cbn [out_label]. f_equal. apply lower_noupper.
      apply Forall_forall. intros c Hin. rewrite Forall_forall in Ha, Hg.
      exact (proj1 (proj2 (clean_final deny c HU (gc_clean deny DOT_MASK c (Ha c Hin) (Hg c Hin))))).
    + unfold enc_label in Ho. destruct (encode_internal cfg dbl) as [p| |s] eqn:Ee; try discriminate. inversion Ho. subst o. clear Ho.
      destruct (other_enc A cfg deny hy HU HL dbl p Hg Hchk Hu Easc Ee) as (_ & _ & _ & Hpcl & _).
      pose proof (clean_ascii deny p Hpcl) as Hpa.
      assert (Hoa : Forall (fun b => b < 128) (120 :: 110 :: 45 :: 45 :: p)) by (repeat (constructor; [lia|]); exact Hpa).
      split; [exact Hoa|]. cbn [e2_of]. rewrite Easc. cbn [out_label]. rewrite Easc. f_equal.
      apply map_to_lower_noupper. change (XN_PREFIX ++ p) with (120 :: 110 :: 45 :: 45 :: p). cbn [existsb].
      rewrite (clean_noupper deny HU p Hpcl). reflexivity.
Qed.

(* one pair, the text chosen by the policy *)
Lemma pair_rtm uni dbl e o : uni_ok uni -> PairOK dbl e -> xn_free dbl e ->
  out_label cfg is_ascii_l dbl e = inl o -> long_puny_label o = false ->
  exists om e3, out_label cfg uni dbl e = inl om /\ pres (utf8_encode om) = SOk (dbl, false, [e3]) /\
    out_label cfg is_ascii_l dbl e3 = inl o /\ nodot (utf8_encode om) /\ usv_list om.
Proof.
  intros Hok HP Hx Ho Hlong. destruct (out_label_cases cfg uni dbl e Hok) as [E|E]; rewrite E.
  - destruct (pair_rtu2 A cfg deny hy HU HL HUSV HNT HMP HMF HNG dbl e o HP Hx Ho Hlong) as (ou & e3 & P1 & P2 & P3 & _ & P5 & P6).
    exists ou, e3. repeat split; assumption.
  - destruct (pair_asc dbl e o HP Ho) as [Hoa He2].
    pose proof (pair_rt2 A cfg deny hy HU HL dbl e o HP Ho Hlong) as Hrt.
    exists o, (e2_of dbl e o). rewrite (utf8_encode_ascii o Hoa).
    split; [exact Ho|]. split; [exact (pres_of_rt A cfg deny hy _ _ _ Hrt)|]. split; [exact He2|].
    split; [exact (pair_out_nodot A cfg deny hy HU HL dbl e o HP Ho)|exact (ascii_usv o Hoa)].
Qed.

Lemma build_M uni DBL : uni_ok uni -> forall ap os, Forall2 PairOK DBL ap -> Forall2 xn_free DBL ap ->
  outs cfg is_ascii_l DBL ap = inl os -> Forall (fun o => long_puny_label o = false) os ->
  exists oms e3s, outs cfg uni DBL ap = inl oms /\ proc_all (map utf8_encode oms) = SOk (DBL, map (fun e => [e]) e3s) /\
    outs cfg is_ascii_l DBL e3s = inl os /\ Forall nodot (map utf8_encode oms) /\ Forall usv_list oms.
Proof.
  intros Hok. induction DBL as [|dbl DBL IH]; intros ap os HP Hx Ho Hl.
  - inversion HP; subst. cbn [outs] in Ho. inversion Ho. exists [], []. repeat split; constructor.
  - inversion HP as [|? e ? ap' H1 H2]; subst. inversion Hx as [|? ? ? ? X1 X2]; subst. cbn [outs] in Ho.
    destruct (out_label cfg is_ascii_l dbl e) as [o|s] eqn:E1; [|discriminate].
    destruct (outs cfg is_ascii_l DBL ap') as [os'|s] eqn:E2; [|discriminate]. inversion Ho. subst os.
    inversion Hl as [|? ? Hl1 Hl2]; subst.
    destruct (IH _ _ H2 X2 E2 Hl2) as (oms & e3s & U1 & U2 & U3 & U5 & U6).
    destruct (pair_rtm uni dbl e o Hok H1 X1 E1 Hl1) as (om & e3 & P1 & P2 & P3 & P5 & P6).
    exists (om :: oms), (e3 :: e3s). cbn [outs map proc_all]. rewrite P1, U1, P2, U2, P3, U3.
    repeat split; constructor; assumption.
Qed.

(* to_user_interface on the walking branch, any policy *)
Lemma to_ui_text p d pl l rest bd db ap : bytes d ->
  d = ptext pl ++ join_dots (l :: rest) -> len (ptext pl) < len d ->
  process_inner A cfg true hy deny d = IRes (len (ptext pl)) bd false db ap ->
  forall os, outs cfg (uni1 false p (tld_of db) bd) (split_on DOT db) ap = inl os ->
  exists b, to_user_interface A cfg d deny hy p = UI b (ptext pl ++ join_dots os) false.
Proof.
  intros Hb Hd Hlt Ei os Eo.
  destruct (inner_facts A cfg true hy deny d _ _ _ _ _ Hb Ei) as [(_ & Hx & _)|[(Hx & _)|[HB Hm]]]; [discriminate|lia|].
  pose proof HB as (_ & Hlen & He1 & Hfd & _ & P & rl & Hd2 & HP & Hcv & HaP & Hma).
  assert (HPe : P = ptext pl) by (apply (app_eq_len P (join_dots rl) (ptext pl) (join_dots (l :: rest))); [rewrite <- Hd2; exact Hd|exact HP]).
  subst P.
  assert (Hne : len (ptext pl) <> len d) by lia.
  unfold to_user_interface.
  rewrite (process_B A cfg false p d deny hy None None false _ _ _ _ _ Hm Hne eq_refl Hfd). cbv zeta.
  pose proof (walk1_spec cfg d false false p (tld_of db) bd (split_on DOT db) ap false (len (ptext pl)) false false (ptext pl) rl Hlen
                ltac:(discriminate)
                ltac:(intros _; split; [apply split_on_ne|cbn [tailtext]; repeat split; assumption])) as HW.
  rewrite Eo in HW.
  unfold Post1, Res1 in HW. cbn [negb andb tailtext] in HW. rewrite andb_false_r in HW.
  destruct (walk1 cfg false p d (tld_of db) bd false (split_on DOT db) ap false (len (ptext pl)) false false) as [ws we].
  rewrite run_sink_none. cbn [fst snd negb] in *.
  destruct (stays (uni1 false p (tld_of db) bd) (split_on DOT db) ap).
  - destruct HW as [HW1 HW2]. rewrite HW2. exists true. rewrite HW1. reflexivity.
  - destruct HW as [HW1 HW2]. rewrite HW1. rewrite andb_false_r. exists false.
    unfold wcat in HW2. cbn [fst] in HW2. rewrite HW2. reflexivity.
Qed.


Theorem round_ui d b a p : bytes d -> to_ascii A cfg d deny hy DIgnore = Ok (b, a) -> Known_C10_long a = false ->
  Known_C12 A cfg d deny hy = false ->
  exists bu um b', to_user_interface A cfg d deny hy p = UI bu um false /\
    to_ascii A cfg (utf8_encode um) deny hy DIgnore = Ok (b', a).
Proof.
  intros Hb H Hlong HK12.
  destruct (accepted_run A cfg deny hy HU HL HOK HUSV HNT HNI HNM HMP d b a Hb H)
    as [(-> & Had & HTd)|(pl & l0 & rest0 & DBL & ap & bd & os & Ei & Hd0 & Hlt0 & Hpl & HD & HPK & Hbidi & Hbok & Eo & Hos & Ha)].
  - exists true, d, b. rewrite (utf8_encode_ascii d Had). split; [exact (HTd p)|exact H].
  - pose proof (pairok_all_nodot A cfg deny hy _ _ HPK) as HDn.
    destruct (classes_on_pairs A cfg deny hy HU HL d pl DBL ap bd os a Ei Hpl HD HPK Eo Hos Ha HK12 Hlong) as [Hxf Hlo].
    set (uni := uni1 false p (tld_of (join_dots DBL)) bd).
    destruct (build_M uni DBL (uni1_ok p _ bd) ap os HPK Hxf Eo Hlo) as (om & e3s & U1 & U2 & U3 & U5 & U6).
    assert (Eom : outs cfg uni (split_on DOT (join_dots DBL)) ap = inl om) by (rewrite (Idna_Mark.split_join DBL HD HDn); exact U1).
    destruct (to_ui_text p d pl l0 rest0 bd _ ap Hb Hd0 Hlt0 Ei om Eom) as (bu & HTu).
    assert (Hom : om <> []).
    { pose proof (outs_len cfg uni _ _ _ U1 (Forall2_len _ _ _ HPK)) as Hx. intros ->. destruct DBL; [contradiction HD; reflexivity|discriminate]. }
    rewrite <- (ptext_join pl om Hom) in HTu.
    destruct (displayed_back A cfg deny hy HU HL HOK pl DBL bd os om e3s Hpl HD HDn Hbidi Hbok Hom U2 U3 U5 U6) as (_ & (b' & HTa) & _).
    rewrite <- Ha in HTa. exists bu, (join_dots (pl ++ om)), b'. split; assumption.
Qed.
End UI.

Theorem c12_ui A cfg : AdapterOK A -> AdapterUSV A -> NvNoTrunc A -> NvIdem A -> AsciiNoMark A -> MapPrefix A -> NvMapFix A ->
  NvNoGrow A ->
  forall d deny hy b a, bytes d -> valid_deny deny -> Known_C12 A cfg d deny hy = false ->
  to_ascii A cfg d deny hy DIgnore = Ok (b, a) -> Known_C10_long a = false ->
  forall p, ui_err (to_user_interface A cfg d deny hy p) = false /\ ui_panics (to_user_interface A cfg d deny hy p) = false /\
    exists b', to_ascii A cfg (utf8_encode (ui_text (to_user_interface A cfg d deny hy p))) deny hy DIgnore = Ok (b', a).
Proof.
  intros HOK HUSV HNT HNI HNM HMP HMF HNG d deny hy b a Hb Hv HK H Hlong p. destruct (valid_deny_facts deny Hv) as [HU HL].
  destruct (round_ui A cfg deny hy HU HL HOK HUSV HNT HNI HNM HMP HMF HNG d b a p Hb H Hlong HK) as (bu & um & b' & E1 & E2).
  rewrite E1. cbn [ui_err ui_panics ui_text]. split; [reflexivity|]. split; [reflexivity|]. exists b'. exact E2.
Qed.
