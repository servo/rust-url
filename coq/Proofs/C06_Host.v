(* Proofs/C06_Host.v - set_host_internal (and through it Url::set_host(Some _), set_ip_host) on a
   well-formed record.  Premises, all explicit:
     - the text the host serialises to matches its kind (host_disp_ok): empty for the empty host,
       otherwise non-empty and not starting with ':' or '@' (true of Display for Host);
     - an empty host is not set on a URL that has a port (rust-url does that: a://h:80/ ->
       a://:80/, F-C02-4);
     - a URL without authority does not carry the "/." marker (rust-url keeps the marker
       between the new host and the path, F-C03-5). *)
From RU Require Import Base.Prelude Model.HostT Model.UrlRecord Model.Setters Model.WF Proofs.ListN
  Proofs.C03_WF Proofs.C06_List Proofs.C06_WFI Proofs.C06_Tail Proofs.C06_Steps Proofs.C06_Suffix
  Proofs.C06_Front.

Definition host_disp_ok (host_display : host -> list N) (h : host) : Prop :=
  match hi_of_host h with
  | HI_None => host_display h = []
  | _ => exists c r, host_display h = c :: r /\ c <> 58 /\ c <> 64
  end.

Definition hi_some (hi : host_internal) : bool := match hi with HI_None => false | _ => true end.

Lemma hi_match {A} hi (x y : A) : (match hi with HI_None => x | _ => y end) = if hi_some hi then y else x.
Proof. destruct hi; reflexivity. Qed.

Lemma host_disp_ok_cases hd h : host_disp_ok hd h ->
  (hi_some (hi_of_host h) = false /\ hd h = [])
  \/ (hi_some (hi_of_host h) = true /\ exists c r, hd h = c :: r /\ c <> 58 /\ c <> 64).
Proof. unfold host_disp_ok. destruct (hi_of_host h); intros H; [left | right | right | right]; split; try reflexivity; exact H. Qed.

(* a URL that already has an authority *)
Definition with_host_auth (u : url) (hi : host_internal) (d : list N) : url :=
  let b' := host_start u + nlen d in
  mkUrl (nfirstn (host_start u) (ser u) ++ d ++ nskipn (host_end u) (ser u))
        (scheme_end u) (username_end u) (host_start u) b' hi (port u) (shift (host_end u) b' (path_start u))
        (option_map (shift (host_end u) b') (query_start u)) (option_map (shift (host_end u) b') (fragment_start u)).

Section WithHostAuth.
Variables (dbg : bool) (u : url) (hi : host_internal) (d : list N).
Hypothesis W : wf_b u = true.
Hypothesis Ha : has_authority_b u = true.
Hypothesis Hd : (hi_some hi = false /\ d = [] /\ port u = None)
                \/ (hi_some hi = true /\ exists c r, d = c :: r /\ c <> 58 /\ c <> 64).

Let u' := with_host_auth u hi d.
Let a := host_start u.
Let b := host_end u.
Let b' := host_start u + nlen d.

Lemma wha_bounds : scheme_end u + 3 <= username_end u /\ username_end u <= a /\ a <= b /\ b <= path_start u
  /\ path_start u <= nlen (ser u).
Proof.
  pose proof (wf_auth_facts u W Ha) as F.
  pose proof (af_ue F); pose proof (af_hs F); pose proof (af_he F); pose proof (af_ps F); pose proof (af_len F).
  unfold a, b. lia.
Qed.

Lemma wha_ser : ser u' = nfirstn a (ser u) ++ d ++ nskipn b (ser u).
Proof. reflexivity. Qed.

Lemma wha_pre : agree_pre a (ser u) (ser u').
Proof. destruct wha_bounds as (B1 & B2 & B3 & B4 & B5). rewrite wha_ser. apply agree_pre_nfirstn. lia. Qed.

Lemma wha_suf : agree_suf b b' (ser u) (ser u').
Proof. destruct wha_bounds as (B1 & B2 & B3 & B4 & B5). rewrite wha_ser. apply splice_suf. lia. Qed.

Lemma wha_len : nlen (ser u') = b' + (nlen (ser u) - b).
Proof. destruct wha_bounds as (B1 & B2 & B3 & B4 & B5). rewrite wha_ser. apply splice_len; lia. Qed.

Lemma wha_tail : shifted_tail b b' u u'.
Proof. repeat split. Qed.

Lemma wha_byte_hi i c : b <= i -> byte_eqb (ser u') (shift b b' i) c = byte_eqb (ser u) i c.
Proof. intros H. apply (suf_byte_eqb b b'); [apply wha_suf | exact H | reflexivity]. Qed.

(* the byte at host_start of the new serialization is not ':' (not '@' either for a non-empty host:
   inside wha_host_text_ok) *)
Lemma wha_byte_at_hs : byte_eqb (ser u') a 58 = false.
Proof.
  destruct wha_bounds as (B1 & B2 & B3 & B4 & B5).
  assert (nlen (nfirstn a (ser u)) = a) as La by (apply nlen_nfirstn; lia).
  destruct Hd as [(Ehi & Ed & Ep)|(Ehi & c & r & Ed & C1 & C2)].
  - (* empty host: the next byte is the first byte of the path (or nothing) *)
    pose proof W as W0. apply wf_b_iff in W0. rewrite Ha in W0.
    destruct W0 as (_ & ((_ & _ & _ & _ & _ & _ & _ & P) & PS) & _).
    unfold port_ok in P. rewrite Ep in P.
    replace a with (shift b b' b) at 1 by (unfold shift, b', a; rewrite Ed, nlen_nil; lia).
    rewrite wha_byte_hi by lia. unfold b. rewrite <- P.
    destruct PS as [PS|[PS|[PS|PS]]].
    + apply byte_eqb_false_of. intros X. apply nnth_lt in X. lia.
    + apply (byte_eqb_excl _ _ 47 58); [lia | exact PS].
    + apply (byte_eqb_excl _ _ 63 58); [lia | exact PS].
    + apply (byte_eqb_excl _ _ 35 58); [lia | exact PS].
  - unfold byte_eqb. rewrite wha_ser, Ed. rewrite nnth_app_ge by lia. rewrite La, N.sub_diag. cbn.
    apply N.eqb_neq. exact C1.
Qed.

Lemma wha_has_authority : has_authority_b u' = true.
Proof.
  destruct wha_bounds as (B1 & B2 & B3 & B4 & B5).
  rewrite (has_authority_b_pre a u u' wha_pre) by (try lia; reflexivity). exact Ha.
Qed.

Lemma wha_wf : wf_b u' = true.
Proof.
  destruct wha_bounds as (B1 & B2 & B3 & B4 & B5). pose proof wha_len as Hl.
  pose proof W as W0. apply wf_b_iff in W0. rewrite Ha in W0. destruct W0 as (S & (AU & PS) & Q).
  apply wf_b_iff. rewrite wha_has_authority. split; [|split; [split|]].
  - apply (scheme_ok_pre a u u'); [apply wha_pre | lia | reflexivity | exact S].
  - destruct AU as (A1 & A2 & A3 & A4 & A5 & U & Hn & P).
    unfold auth_ok. change (scheme_end u') with (scheme_end u). change (username_end u') with (username_end u).
    change (host_start u') with a. change (host_end u') with b'. change (path_start u') with (shift b b' (path_start u)).
    change (hosti u') with hi.
    split; [lia|]. split; [lia|]. split; [unfold b'; lia|]. split; [unfold shift; lia|].
    split; [rewrite Hl; unfold shift; lia|]. split; [|split].
    + unfold userinfo_ok. change (scheme_end u') with (scheme_end u). change (username_end u') with (username_end u).
      change (host_start u') with a.
      destruct U as [(U1 & U2 & U3)|[(U1 & U2 & U3)|(U1 & U2)]].
      * left. splits; try assumption. rewrite U1. apply wha_byte_at_hs.
      * right. left. rewrite !(pre_byte_eqb a _ _ _ _ wha_pre) by (unfold a; lia). tauto.
      * right. right. rewrite !(pre_byte_eqb a _ _ _ _ wha_pre) by (unfold a; lia). tauto.
    + intros E. destruct Hd as [(Ehi & Ed & Ep)|(Ehi & _)]; [|rewrite E in Ehi; discriminate].
      unfold b'. rewrite Ed, nlen_nil. lia.
    + unfold port_ok in *. change (port u') with (port u). change (host_end u') with b'.
      change (path_start u') with (shift b b' (path_start u)).
      destruct (port u) as [p|].
      * destruct P as (P1 & P2 & P3 & P4). split; [|split; [|split]].
        -- replace b' with (shift b b' b) at 1 by (unfold shift; lia). rewrite wha_byte_hi by lia. exact P1.
        -- unfold shift. unfold b in *. lia.
        -- exact P3.
        -- replace (b' + 1) with (shift b b' (b + 1)) by (unfold shift; lia).
           replace (shift b b' (path_start u) - shift b b' (b + 1)) with (path_start u - (b + 1)) by (unfold shift, b in *; lia).
           rewrite (suf_piece b b' _ _ (b + 1) _ _ wha_suf) by (try lia; reflexivity). exact P4.
      * unfold shift. unfold b in *. lia.
  - apply (sfx_pathstart_ok u u' b b' W wha_suf); [lia | rewrite Hl; lia | apply wha_tail | exact PS].
  - apply (sfx_qf_ok u u' b b' W wha_suf); [lia | rewrite Hl; lia | apply wha_tail].
Qed.

Lemma wha_host_text_ok : host_text_ok u'.
Proof.
  destruct wha_bounds as (B1 & B2 & B3 & B4 & B5).
  assert (nlen (nfirstn a (ser u)) = a) as La by (apply nlen_nfirstn; lia).
  intros Hh. change (has_host u') with (hi_some hi) in Hh.
  change (host_start u') with a. change (host_end u') with b'.
  destruct Hd as [(Ehi & _)|(Ehi & c & r & Ed & C1 & C2)]; [congruence|].
  split; [unfold b'; rewrite Ed, nlen_cons; lia|].
  unfold byte_eqb. rewrite wha_ser, Ed. rewrite nnth_app_ge by lia. rewrite La, N.sub_diag. cbn.
  split; apply N.eqb_neq; assumption.
Qed.

Lemma wha_scheme : scheme u' = scheme u.
Proof.
  destruct wha_bounds as (B1 & B2 & B3 & B4 & B5).
  apply (scheme_same u u' a W wha_wf wha_pre); [reflexivity | lia].
Qed.

Lemma wha_username : username dbg u' = username dbg u.
Proof.
  destruct wha_bounds as (B1 & B2 & B3 & B4 & B5).
  apply (username_same dbg u u' a W wha_wf Ha wha_has_authority wha_pre); [reflexivity | reflexivity | lia].
Qed.

Lemma wha_password : password dbg u' = password dbg u.
Proof.
  apply (password_same dbg u u' a W wha_wf Ha wha_has_authority wha_pre); [reflexivity | reflexivity | unfold a; lia].
Qed.

Lemma wha_back : same_back dbg u u'.
Proof.
  destruct wha_bounds as (B1 & B2 & B3 & B4 & B5). pose proof wha_len as Hl.
  apply (sfx_back dbg u u' b b' W wha_wf wha_suf); [lia | rewrite Hl; lia | apply wha_tail].
Qed.

Lemma wha_host_str : host_str u' = Some (if hi_some hi then Some d else None).
Proof.
  destruct wha_bounds as (B1 & B2 & B3 & B4 & B5).
  rewrite (host_str_eval u' wha_wf). f_equal.
  change (has_host u') with (hi_some hi).
  assert (piece u' (pidx u' BeforeHost) (pidx u' AfterHost) = d) as E.
  { unfold piece. cbn [pidx]. change (host_start u') with a. change (host_end u') with b'.
    replace (b' - a) with (nlen d) by (unfold b', a; lia).
    rewrite wha_ser, splice_skip by lia. apply nfirstn_app_exact. }
  rewrite E. reflexivity.
Qed.

End WithHostAuth.

(* a URL without authority (and without the "/." marker) whose path starts with '/' *)
Definition with_host_noauth (u : url) (hi : host_internal) (d : list N) : url :=
  let hs' := scheme_end u + 3 in
  let b' := hs' + nlen d in
  mkUrl (nfirstn (scheme_end u + 1) (ser u) ++ [47; 47] ++ d ++ nskipn (scheme_end u + 1) (ser u))
        (scheme_end u) hs' hs' b' hi None (shift (scheme_end u + 1) b' (path_start u))
        (option_map (shift (scheme_end u + 1) b') (query_start u))
        (option_map (shift (scheme_end u + 1) b') (fragment_start u)).

Section WithHostNoAuth.
Variables (dbg : bool) (u : url) (hi : host_internal) (d : list N).
Hypothesis W : wf_b u = true.
Hypothesis Ha : has_authority_b u = false.
Hypothesis Hnm : path_start u = scheme_end u + 1.
Hypothesis Hsl : byte_eqb (ser u) (scheme_end u + 1) 47 = true.
Hypothesis Hd : (hi_some hi = false /\ d = [])
                \/ (hi_some hi = true /\ exists c r, d = c :: r /\ c <> 58 /\ c <> 64).

Let u' := with_host_noauth u hi d.
Let a := scheme_end u + 1.
Let b' := scheme_end u + 3 + nlen d.

Lemma whn_bounds : 1 <= scheme_end u /\ a < nlen (ser u).
Proof. destruct (wf_scheme_facts u W) as (H1 & _ & H3). pose proof (byte_eqb_lt _ _ _ Hsl). unfold a. lia. Qed.

Lemma whn_ser : ser u' = nfirstn a (ser u) ++ [47; 47] ++ d ++ nskipn a (ser u).
Proof. reflexivity. Qed.

Lemma whn_pre : agree_pre a (ser u) (ser u').
Proof. destruct whn_bounds. rewrite whn_ser. apply agree_pre_nfirstn. lia. Qed.

Lemma whn_suf : agree_suf a b' (ser u) (ser u').
Proof.
  destruct whn_bounds. rewrite whn_ser. replace b' with (a + nlen ([47; 47] ++ d)) by (rewrite nlen_app; unfold b', a; cbn; lia).
  apply (splice_suf a a ([47; 47] ++ d)). lia.
Qed.

Lemma whn_len : nlen (ser u') = b' + (nlen (ser u) - a).
Proof.
  destruct whn_bounds. rewrite whn_ser, (splice_len a a ([47; 47] ++ d)), nlen_app by lia. unfold b', a. cbn. lia.
Qed.

Lemma whn_tail : shifted_tail a b' u u'.
Proof. repeat split. Qed.

Lemma whn_byte_hi i c : a <= i -> byte_eqb (ser u') (shift a b' i) c = byte_eqb (ser u) i c.
Proof. intros H. apply (suf_byte_eqb a b'); [apply whn_suf | exact H | reflexivity]. Qed.

Lemma whn_nnth_mid k : nnth (ser u') (a + k) = nnth ([47; 47] ++ d ++ nskipn a (ser u)) k.
Proof.
  destruct whn_bounds. rewrite whn_ser. rewrite nnth_app_ge by (rewrite nlen_nfirstn; lia).
  rewrite nlen_nfirstn by lia. f_equal. lia.
Qed.

Lemma whn_has_authority : has_authority_b u' = true.
Proof.
  destruct whn_bounds. destruct (wf_scheme_facts u W) as (_ & Hc & _).
  unfold has_authority_b. change (scheme_end u') with (scheme_end u).
  apply byte_eqb_nnth in Hc.
  assert (nnth (ser u') (scheme_end u) = Some 58) as C0.
  { rewrite (pre_nnth a _ _ _ whn_pre) by (unfold a; lia). exact Hc. }
  rewrite (nskipn_cons_of_nnth _ _ _ C0).
  assert (nnth (ser u') (scheme_end u + 1) = Some 47) as C1.
  { replace (scheme_end u + 1) with (a + 0) by (unfold a; lia). rewrite whn_nnth_mid. reflexivity. }
  rewrite (nskipn_cons_of_nnth _ _ _ C1).
  assert (nnth (ser u') (scheme_end u + 1 + 1) = Some 47) as C2.
  { replace (scheme_end u + 1 + 1) with (a + 1) by (unfold a; lia). rewrite whn_nnth_mid. reflexivity. }
  rewrite (nskipn_cons_of_nnth _ _ _ C2). reflexivity.
Qed.

Lemma whn_byte_at_hs c : c = 58 \/ c = 64 -> byte_eqb (ser u') (scheme_end u + 3) c = false.
Proof.
  intros Hc. destruct whn_bounds.
  replace (scheme_end u + 3) with (a + 2) by (unfold a; lia). unfold byte_eqb. rewrite whn_nnth_mid.
  change (nnth ([47; 47] ++ d ++ nskipn a (ser u)) 2) with (nnth (d ++ nskipn a (ser u)) 0).
  destruct Hd as [(Ehi & Ed)|(Ehi & c0 & r & Ed & C1 & C2)]; rewrite Ed.
  - cbn [app]. rewrite nnth_nskipn, N.add_0_r. unfold a.
    pose proof Hsl as Hsl'. apply byte_eqb_nnth in Hsl'. rewrite Hsl'. apply N.eqb_neq. destruct Hc; subst; lia.
  - cbn. apply N.eqb_neq. destruct Hc; subst; assumption.
Qed.

Lemma whn_wf : wf_b u' = true.
Proof.
  destruct whn_bounds as (B1 & B2). pose proof whn_len as Hl.
  pose proof (path_start_le_len u W) as Hpl.
  pose proof W as W0. apply wf_b_iff in W0. rewrite Ha in W0. destruct W0 as (S & NA & Q).
  apply wf_b_iff. rewrite whn_has_authority. split; [|split; [split|]].
  - apply (scheme_ok_pre a u u'); [apply whn_pre | unfold a; lia | reflexivity | exact S].
  - unfold auth_ok. change (scheme_end u') with (scheme_end u). change (username_end u') with (scheme_end u + 3).
    change (host_start u') with (scheme_end u + 3). change (host_end u') with b'.
    change (path_start u') with (shift a b' (path_start u)). change (hosti u') with hi.
    split; [lia|]. split; [lia|]. split; [unfold b'; lia|]. split; [unfold shift, a; lia|].
    split; [rewrite Hl; unfold shift, a; lia|]. split; [|split].
    + left. change (username_end u') with (scheme_end u + 3). change (host_start u') with (scheme_end u + 3).
      change (scheme_end u') with (scheme_end u). splits; try reflexivity. apply whn_byte_at_hs. left. reflexivity.
    + intros E. destruct Hd as [(Ehi & Ed)|(Ehi & _)]; [|rewrite E in Ehi; discriminate].
      unfold b'. rewrite Ed, nlen_nil. lia.
    + unfold port_ok. change (port u') with (@None N). change (path_start u') with (shift a b' (path_start u)).
      change (host_end u') with b'. unfold shift, a. lia.
  - unfold pathstart_ok. right. left. change (path_start u') with (shift a b' (path_start u)).
    rewrite whn_byte_hi by (unfold a; lia). rewrite Hnm. exact Hsl.
  - apply (sfx_qf_ok u u' a b' W whn_suf); [unfold a; lia | rewrite Hl; lia | apply whn_tail].
Qed.

Lemma whn_host_text_ok : host_text_ok u'.
Proof.
  intros Hh. change (has_host u') with (hi_some hi) in Hh.
  change (host_start u') with (scheme_end u + 3). change (host_end u') with b'.
  split; [|split; apply whn_byte_at_hs; [left | right]; reflexivity].
  destruct Hd as [(Ehi & _)|(Ehi & c & r & Ed & _)]; [congruence|]. unfold b'. rewrite Ed, nlen_cons. lia.
Qed.

Lemma whn_scheme : scheme u' = scheme u.
Proof. apply (scheme_same u u' a W whn_wf whn_pre); [reflexivity | unfold a; lia]. Qed.

Lemma whn_username : username dbg u' = username dbg u.
Proof.
  rewrite (username_eval dbg u' whn_wf), (username_eval dbg u W). f_equal. unfold piece. cbn [pidx].
  rewrite whn_has_authority, Ha. change (username_end u') with (scheme_end u + 3). change (scheme_end u') with (scheme_end u).
  rewrite (nf_ue (wf_noauth_facts u W Ha)). rewrite !N.sub_diag. reflexivity.
Qed.

Lemma whn_password : password dbg u' = password dbg u.
Proof.
  rewrite (password_piece dbg u' whn_wf), (password_piece dbg u W).
  assert (has_password_b u = false) as H0 by (unfold has_password_b; rewrite Ha; reflexivity).
  assert (has_password_b u' = false) as H1.
  { unfold has_password_b. change (username_end u') with (scheme_end u + 3).
    rewrite (whn_byte_at_hs 58) by (left; reflexivity). apply andb_false_r. }
  rewrite H0, H1. reflexivity.
Qed.

Lemma whn_back : same_back dbg u u'.
Proof.
  destruct whn_bounds. pose proof whn_len as Hl.
  apply (sfx_back dbg u u' a b' W whn_wf whn_suf); [unfold a; lia | rewrite Hl; lia | apply whn_tail].
Qed.

Lemma whn_host_str : host_str u' = Some (if hi_some hi then Some d else None).
Proof.
  destruct whn_bounds.
  rewrite (host_str_eval u' whn_wf). f_equal.
  change (has_host u') with (hi_some hi).
  assert (piece u' (pidx u' BeforeHost) (pidx u' AfterHost) = d) as E.
  { unfold piece. cbn [pidx]. change (host_start u') with (scheme_end u + 3). change (host_end u') with b'.
    replace (b' - (scheme_end u + 3)) with (nlen d) by (unfold b'; lia).
    rewrite whn_ser.
    replace (nfirstn a (ser u) ++ [47; 47] ++ d ++ nskipn a (ser u))
      with ((nfirstn a (ser u) ++ [47; 47]) ++ d ++ nskipn a (ser u)) by (rewrite <- !app_assoc; reflexivity).
    assert (nlen (nfirstn a (ser u) ++ [47; 47]) = scheme_end u + 3) as L.
    { rewrite nlen_app, nlen_nfirstn by lia. change (nlen [47; 47]) with 2. unfold a. lia. }
    rewrite <- L. rewrite nskipn_app_exact. apply nfirstn_app_exact. }
  rewrite E. reflexivity.
Qed.

End WithHostNoAuth.

(* evaluation of set_host_internal (no new port) *)
Lemma has_authority_trunc dbg u : wf_b u = true ->
  has_authority dbg (set_ser u (truncate (ser u) (host_start u))) = Some (has_authority_b u).
Proof.
  intros W. destruct (wf_scheme_facts u W) as (Hse & Hc & Hlt).
  assert (scheme_end u < host_start u /\ host_start u <= nlen (ser u)) as [G1 G2].
  { destruct (has_authority_b u) eqn:Ha.
    - pose proof (wf_auth_facts u W Ha) as F.
      pose proof (af_ue F); pose proof (af_hs F); pose proof (af_he F); pose proof (af_ps F); pose proof (af_len F). lia.
    - pose proof (wf_noauth_facts u W Ha) as F. rewrite (nf_hs F). lia. }
  unfold has_authority, byte_is, byte_at, u_slice_from, truncate. cbn [ser set_ser scheme_end].
  rewrite nnth_nfirstn by lia. rewrite (byte_eqb_nnth _ _ _ Hc). cbn [bindo]. rewrite N.eqb_refl. cbn [assert_o].
  rewrite slice_from_o_some by (rewrite nlen_nfirstn; lia).
  assert (starts_with s_css (nskipn (scheme_end u) (nfirstn (host_start u) (ser u))) = has_authority_b u) as E.
  { destruct (has_authority_b u) eqn:Ha.
    - pose proof (wf_auth_facts u W Ha) as F. pose proof (af_ue F); pose proof (af_hs F).
      rewrite (pre_starts_with (host_start u) (ser u) _ s_css (scheme_end u) (agree_pre_trunc _ _))
        by (change (nlen s_css) with 3; lia).
      exact Ha.
    - pose proof (wf_noauth_facts u W Ha) as F. rewrite (nf_hs F).
      rewrite nskipn_nfirstn_comm. rewrite (piece_one _ _ _ (byte_eqb_nnth _ _ _ Hc)). reflexivity. }
  destruct dbg; cbn [bindo]; rewrite E; reflexivity.
Qed.

Ltac shi_auth dbg host_display u h :=
  unfold truncate; cbn [bindo];
  let El := fresh "El" in
  assert (nlen (nfirstn (host_start u) (ser u) ++ host_display h) = host_start u + nlen (host_display h)) as El
    by (rewrite nlen_app, nlen_nfirstn by lia; reflexivity);
  rewrite El; rewrite adjust_ok by lia;
  rewrite !adjust_opt_ok by (destruct (query_start u), (fragment_start u); try exact I; lia);
  cbn [bindo];
  exists (with_host_auth u (hi_of_host h) (host_display h));
  (split; [unfold with_host_auth; rewrite <- app_assoc; reflexivity|]).

Ltac shi_noauth dbg host_display u h Ehs Eue Ehe Hc Eport :=
  unfold truncate; rewrite Ehs, Eue, Ehe;
  let E58 := fresh "E58" in
  assert (nfirstn (scheme_end u + 1 - scheme_end u) (nskipn (scheme_end u) (nfirstn (scheme_end u + 1) (ser u))) = [58]) as E58
    by (replace (scheme_end u + 1 - scheme_end u) with 1 by lia; rewrite nskipn_nfirstn_comm;
        rewrite nfirstn_nfirstn by lia; apply (piece_one _ _ _ (byte_eqb_nnth _ _ _ Hc)));
  replace (if dbg then x <- slice_o (nfirstn (scheme_end u + 1) (ser u)) (scheme_end u) (scheme_end u + 1);;
                         assert_o (list_eqb x [58]);;; assert_o (scheme_end u + 1 =? scheme_end u + 1) else Some tt)
    with (Some tt)
    by (destruct dbg; [|reflexivity]; rewrite slice_o_some by (rewrite ?nlen_nfirstn; lia); cbn [bindo];
        rewrite E58; cbn [list_eqb]; rewrite !N.eqb_refl; reflexivity);
  cbn [bindo];
  let El := fresh "El" in
  assert (nlen ((nfirstn (scheme_end u + 1) (ser u) ++ [47; 47]) ++ host_display h) = scheme_end u + 3 + nlen (host_display h)) as El
    by (rewrite !nlen_app, nlen_nfirstn by lia; change (nlen [47; 47]) with 2; lia);
  rewrite El; rewrite adjust_ok by lia;
  rewrite !adjust_opt_ok by (destruct (query_start u), (fragment_start u); try exact I; lia);
  cbn [bindo];
  exists (with_host_noauth u (hi_of_host h) (host_display h));
  (split; [unfold with_host_noauth; rewrite <- !app_assoc;
           replace (scheme_end u + 1 + 2) with (scheme_end u + 3) by lia; rewrite Eport; reflexivity|]).

Section SetHostInternal.
Variable dbg : bool.
Variable host_display : host -> list N.

(* set_host_internal (no new port) builds one of the two records above, whatever the host *)
Lemma set_host_internal_eval u h : wf_b u = true ->
  (has_authority_b u = false -> path_start u = scheme_end u + 1) ->
  set_host_internal dbg host_display u h None
  = Some (if has_authority_b u then with_host_auth u (hi_of_host h) (host_display h)
          else with_host_noauth u (hi_of_host h) (host_display h)).
Proof.
  intros W Hx2.
  enough (exists u', set_host_internal dbg host_display u h None = Some u'
          /\ u' = if has_authority_b u then with_host_auth u (hi_of_host h) (host_display h)
                  else with_host_noauth u (hi_of_host h) (host_display h)) as (u' & E & ->) by exact E.
  unfold set_host_internal. destruct (wf_scheme_facts u W) as (Hse & Hc & Hlt).
  destruct (has_authority_b u) eqn:Ha.
  all: try (pose proof (wf_auth_facts u W Ha) as F;
            pose proof (af_ue F); pose proof (af_hs F); pose proof (af_he F); pose proof (af_ps F); pose proof (af_len F)).
  all: try (pose proof (wf_noauth_facts u W Ha) as F; pose proof (nf_ue F) as Eue; pose proof (nf_hs F) as Ehs;
            pose proof (nf_he F) as Ehe; pose proof (nf_len F); pose proof (nf_port F) as Eport; pose proof (Hx2 eq_refl) as Hnm).
  all: destruct (wf_tail_offsets_ge u (path_start u) W ltac:(lia)) as [Gq Gf].
  all: unfold u_slice_from; rewrite slice_from_o_some by lia; cbn [bindo];
       rewrite (has_authority_trunc dbg u W); cbn [bindo]; rewrite Ha; cbn [negb].
  - shi_auth dbg host_display u h. reflexivity.
  - shi_noauth dbg host_display u h Ehs Eue Ehe Hc Eport. reflexivity.
Qed.

Theorem set_host_internal_ok u h : wf_b u = true -> host_disp_ok host_display h ->
  (has_authority_b u = true -> hi_of_host h = HI_None -> port u = None) ->
  (has_authority_b u = false -> path_start u = scheme_end u + 1 /\ byte_eqb (ser u) (scheme_end u + 1) 47 = true) ->
  exists u', set_host_internal dbg host_display u h None = Some u'
  /\ wf_b u' = true /\ host_text_ok u' /\ scheme u' = scheme u /\ username dbg u' = username dbg u
  /\ password dbg u' = password dbg u /\ port u' = port u /\ same_back dbg u u'
  /\ host_str u' = Some (if hi_some (hi_of_host h) then Some (host_display h) else None)
  /\ hosti u' = hi_of_host h.
Proof.
  intros W Hdo Hx1 Hx2. rewrite (set_host_internal_eval u h W (fun E => proj1 (Hx2 E))).
  eexists. split; [reflexivity|]. destruct (has_authority_b u) eqn:Ha.
  - assert ((hi_some (hi_of_host h) = false /\ host_display h = [] /\ port u = None)
            \/ (hi_some (hi_of_host h) = true /\ exists c r, host_display h = c :: r /\ c <> 58 /\ c <> 64)) as Hd.
    { destruct (host_disp_ok_cases _ _ Hdo) as [(Ehi & Ed)|H]; [left | right; exact H]. splits; try assumption.
      apply Hx1; [reflexivity|]. destruct (hi_of_host h); [reflexivity | discriminate ..]. }
    splits.
    + apply wha_wf; assumption.
    + apply wha_host_text_ok; assumption.
    + apply wha_scheme; assumption.
    + apply wha_username; assumption.
    + apply wha_password; assumption.
    + reflexivity.
    + apply wha_back; assumption.
    + apply wha_host_str; assumption.
    + reflexivity.
  - destruct (Hx2 eq_refl) as [Hnm Hsl]. pose proof (host_disp_ok_cases _ _ Hdo) as Hd.
    splits.
    + apply whn_wf; assumption.
    + apply whn_host_text_ok; assumption.
    + apply whn_scheme; assumption.
    + apply whn_username; assumption.
    + apply whn_password; assumption.
    + symmetry. apply (nf_port (wf_noauth_facts u W Ha)).
    + apply whn_back; assumption.
    + apply whn_host_str; assumption.
    + reflexivity.
Qed.

End SetHostInternal.

Section HostSetters.
Variable dbg : bool.
Variable host_parse : list N -> result host.
Variable host_parse_opaque : list N -> result host.
Variable host_display : host -> list N.

Definition host_set_post (u u' : url) (h : host) : Prop :=
  wf_b u' = true /\ host_text_ok u' /\ scheme u' = scheme u /\ username dbg u' = username dbg u
  /\ password dbg u' = password dbg u /\ port u' = port u /\ same_back dbg u u'
  /\ host_str u' = Some (if hi_some (hi_of_host h) then Some (host_display h) else None)
  /\ hosti u' = hi_of_host h.

Lemma set_host_internal_post u h u' : wf_b u = true -> host_disp_ok host_display h ->
  (has_authority_b u = true -> hi_of_host h = HI_None -> port u = None) ->
  (has_authority_b u = false -> path_start u = scheme_end u + 1) ->
  byte_eqb (ser u) (scheme_end u + 1) 47 = true ->
  set_host_internal dbg host_display u h None = Some u' -> host_set_post u u' h.
Proof.
  intros W Hd X1 X2 Hsl E.
  destruct (set_host_internal_ok dbg host_display u h W Hd X1) as (u'' & E' & R).
  - intros Ha. split; [apply X2; exact Ha | exact Hsl].
  - rewrite E in E'. inversion E'; subst u''. exact R.
Qed.

Theorem set_ip_host_ok u h u' st : wf_b u = true -> host_disp_ok host_display h ->
  (has_authority_b u = false -> path_start u = scheme_end u + 1) ->
  set_ip_host dbg host_display u h = Some (u', st) ->
  (st <> SOk -> u' = u)
  /\ (st = SOk -> (has_authority_b u = true -> hi_of_host h = HI_None -> port u = None) -> host_set_post u u' h).
Proof.
  intros W Hd X2 H. unfold set_ip_host in H. rewrite (cannot_be_a_base_eval u W) in H. cbn [bindo] in H.
  destruct (byte_eqb (ser u) (scheme_end u + 1) 47) eqn:Hsl; cbn [negb] in H.
  - destruct (set_host_internal dbg host_display u h None) as [u0|] eqn:E; cbn [bindo] in H; [|discriminate].
    inversion H; subst. split; [intros X; contradiction|]. intros _ X1.
    apply (set_host_internal_post u h u' W Hd X1 X2 Hsl E).
  - inversion H; subst. split; [reflexivity | discriminate].
Qed.

(* Weak in two ways: host_disp_ok is asked of EVERY value h (false of the model's Display: C09_Inst's
   host_disp_ok_all_refuted), and the witness h stands before the premise on h and is not tied to x (on a URL
   with a port the empty host makes the SOk clause true of any u').  C06_Quirks.set_host_some_post names the
   parsed host and asks host_disp_ok of parser results only. *)
Theorem set_host_some_ok u x u' st : wf_b u = true -> (forall h, host_disp_ok host_display h) ->
  (has_authority_b u = false -> path_start u = scheme_end u + 1) ->
  set_host dbg host_parse host_parse_opaque host_display u (Some x) = Some (u', st) ->
  (st <> SOk -> u' = u)
  /\ (st = SOk -> exists h,
        (has_authority_b u = true -> hi_of_host h = HI_None -> port u = None) -> host_set_post u u' h).
Proof.
  intros W Hd X2 H. unfold set_host in H. rewrite (cannot_be_a_base_eval u W) in H. cbn [bindo] in H.
  destruct (byte_eqb (ser u) (scheme_end u + 1) 47) eqn:Hsl; cbn [negb] in H.
  2:{ inversion H; subst. split; [reflexivity | discriminate]. }
  unfold u_scheme_type in H. rewrite (scheme_eval u W) in H. cbn [bindo] in H.
  match type of H with (if ?c then _ else _) = _ => destruct c end.
  { inversion H; subst. split; [reflexivity | discriminate]. }
  match type of H with (match ?sub with Some _ => _ | None => _ end) = _ => destruct sub as [hsub|] end.
  2:{ inversion H; subst. split; [reflexivity | discriminate]. }
  match type of H with (match ?r with Ok _ => _ | Err _ => _ end) = _ => destruct r as [host|e] end.
  2:{ inversion H; subst. split; [reflexivity | discriminate]. }
  destruct (set_host_internal dbg host_display u host None) as [u0|] eqn:E; cbn [bindo] in H; [|discriminate].
  inversion H; subst. split; [intros X; contradiction|]. intros _. exists host. intros X1.
  apply (set_host_internal_post u host u' W (Hd host) X1 X2 Hsl E).
Qed.

End HostSetters.

(* the excluded classes are real: witnesses *)
Definition hs_hp (s : list N) : result host := Ok (HDomain s).
Definition hs_hd (h : host) : list N := match h with HDomain d => d | _ => [] end.

Lemma hs_hd_ok : forall h, (forall c r, h = HDomain (c :: r) -> c <> 58 /\ c <> 64) ->
  (forall a, h <> HIpv4 a) -> (forall p, h <> HIpv6 p) -> host_disp_ok hs_hd h.
Proof.
  intros h H1 H2 H3. unfold host_disp_ok. destruct h as [[|c r]|a|p]; cbn.
  - reflexivity.
  - exists c, r. split; [reflexivity|]. apply (H1 c r). reflexivity.
  - exfalso. apply (H2 a). reflexivity.
  - exfalso. apply (H3 p). reflexivity.
Qed.

(* "a://h:80/" : set_host(Some "") gives "a://:80/" - not well-formed (F-C02-4) *)
Definition hs_w1 : url := mkUrl [97; 58; 47; 47; 104; 58; 56; 48; 47] 1 4 4 5 HI_Domain (Some 80) 8 None None.
Lemma set_host_empty_with_port_refuted :
  wf_b hs_w1 = true
  /\ exists u', set_host true hs_hp hs_hp hs_hd hs_w1 (Some []) = Some (u', SOk)
     /\ ser u' = [97; 58; 47; 47; 58; 56; 48; 47] /\ wf_b u' = false.
Proof. split; [vm_compute; reflexivity|]. eexists. split; [vm_compute; reflexivity|]. split; vm_compute; reflexivity. Qed.

(* "a:/.//p" : set_host(Some "h") gives "a://h/.//p" with path_start pointing behind the marker (F-C03-5) *)
Definition hs_w2 : url := mkUrl [97; 58; 47; 46; 47; 47; 112] 1 2 2 2 HI_None None 4 None None.
Lemma set_host_marker_refuted :
  wf_b hs_w2 = true /\ has_authority_b hs_w2 = false /\ path_start hs_w2 <> scheme_end hs_w2 + 1
  /\ exists u', set_host true hs_hp hs_hp hs_hd hs_w2 (Some [104]) = Some (u', SOk)
     /\ ser u' = [97; 58; 47; 47; 104; 47; 46; 47; 47; 112] /\ wf_b u' = false.
Proof.
  split; [vm_compute; reflexivity|]. split; [vm_compute; reflexivity|]. split; [vm_compute; discriminate|].
  eexists. split; [vm_compute; reflexivity|]. split; vm_compute; reflexivity.
Qed.
