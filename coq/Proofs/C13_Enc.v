(* Proofs/C13_Enc.v - the encoder: the external caller returns Overflow or the RFC 3492 result, never
   panics; the internal caller equals the external one on inputs of at most 1000 scalars (1000 is
   PUNYCODE_ENCODE_MAX_INPUT_LENGTH of idna/src/uts46.rs).  Panic sites, such as 422 for `delta += 1`, are line
   numbers of idna/src/punycode.rs. *)
From RU Require Import Base.Prelude Base.U32_c13 Gen.Tables Model.Punycode Spec.Rfc3492
  Proofs.C13_Bounds.

Fixpoint cnt (p : N -> bool) (l : list N) : N :=
  match l with [] => 0 | c :: r => (if p c then 1 else 0) + cnt p r end.
Definition len (l : list N) : N := N.of_nat (length l).

Lemma len_nil : len [] = 0. Proof. reflexivity. Qed.
Lemma len_cons c r : len (c :: r) = len r + 1.
Proof. unfold len. cbn [length]. lia. Qed.
Lemma cnt_le p l : cnt p l <= len l.
Proof. induction l as [|c r IH]; [cbn [cnt]; rewrite len_nil; lia|]. cbn [cnt]. rewrite len_cons. destruct (p c); lia. Qed.
Lemma cnt_filter p l : cnt p l = len (filter p l).
Proof.
  induction l as [|c r IH]; [reflexivity|]. cbn [cnt filter]. destruct (p c); [rewrite len_cons|]; lia.
Qed.
Lemma cnt_all p l : (forall c, In c l -> p c = true) -> cnt p l = len l.
Proof.
  induction l as [|c r IH]; intros H; [reflexivity|]. cbn [cnt]. rewrite len_cons.
  rewrite (H c (or_introl eq_refl)). rewrite IH; [lia|]. intros x Hx. apply H. right. exact Hx.
Qed.
Lemma cnt_eq_in l m : In m l -> 1 <= cnt (fun c => c =? m) l.
Proof.
  induction l as [|c r IH]; intros H; [destruct H|]. cbn [cnt]. destruct H as [H|H].
  - subst c. rewrite N.eqb_refl. lia.
  - specialize (IH H). destruct (c =? m); lia.
Qed.
Lemma cnt_lt_step l n m : n <= m -> (forall c, In c l -> n <= c -> m <= c) ->
  cnt (fun c => c <? m + 1) l = cnt (fun c => c <? n) l + cnt (fun c => c =? m) l.
Proof.
  intros Hnm. induction l as [|c r IH]; intros H; [reflexivity|]. cbn [cnt].
  rewrite IH by (intros x Hx; apply H; right; exact Hx).
  pose proof (H c (or_introl eq_refl)) as Hc.
  destruct (c <? n) eqn:E1.
  - replace (c <? m + 1) with true by lia. replace (c =? m) with false by lia. lia.
  - assert (m <= c) by (apply Hc; lia).
    destruct (c =? m) eqn:E2.
    + replace (c <? m + 1) with true by lia. lia.
    + replace (c <? m + 1) with false by lia. lia.
Qed.

Lemma s_min_ge_some l : forall n m, s_min_ge n l = Some m ->
  In m l /\ n <= m /\ (forall c, In c l -> n <= c -> m <= c).
Proof.
  induction l as [|c r IH]; intros n m H; cbn [s_min_ge] in H; [discriminate|].
  destruct (n <=? c) eqn:E.
  - destruct (s_min_ge n r) as [x|] eqn:Er.
    + specialize (IH n x Er). destruct IH as [Hin [Hle Hmin]].
      inversion H. subst m. clear H.
      destruct (N.min_spec c x) as [[Hlt Hm]|[Hge Hm]]; rewrite Hm.
      * split; [left; reflexivity|]. split; [lia|].
        intros y [Hy|Hy] Hny; [subst; lia|]. specialize (Hmin y Hy Hny). lia.
      * split; [right; exact Hin|]. split; [lia|].
        intros y [Hy|Hy] Hny; [subst; lia|]. exact (Hmin y Hy Hny).
    + inversion H. subst m. split; [left; reflexivity|]. split; [lia|].
      intros y [Hy|Hy] Hny; [subst; lia|].
      exfalso. clear IH H. revert y Hy Hny Er. induction r as [|z r IHr]; intros y Hy Hny Er; [destruct Hy|].
      cbn [s_min_ge] in Er. destruct (n <=? z) eqn:Ez; [destruct (s_min_ge n r); discriminate|].
      destruct Hy as [Hy|Hy]; [subst; lia|]. exact (IHr y Hy Hny Er).
  - specialize (IH n m H). destruct IH as [Hin [Hle Hmin]].
    split; [right; exact Hin|]. split; [exact Hle|].
    intros y [Hy|Hy] Hny; [subst; lia|]. exact (Hmin y Hy Hny).
Qed.

Lemma s_min_ge_none l : forall n, s_min_ge n l = None -> forall c, In c l -> c < n.
Proof.
  induction l as [|z r IH]; intros n H c Hc; [destruct Hc|].
  cbn [s_min_ge] in H. destruct (n <=? z) eqn:Ez; [destruct (s_min_ge n r); discriminate|].
  destruct Hc as [Hc|Hc]; [subst; lia|]. exact (IH n H c Hc).
Qed.

Lemma s_inner_facts l : forall n b delta bias h d bi h' o,
  s_enc_inner l n b delta bias h = (d, bi, h', o) ->
  h' = h + cnt (fun c => c =? n) l /\ d <= delta + len l /\ (In n l -> d + 1 <= len l).
Proof.
  induction l as [|a l IH]; intros n b delta bias h d bi h' o H; cbn [s_enc_inner] in H; cbv zeta in H.
  - inversion H. subst. cbn [cnt]. rewrite len_nil. split; [lia|]. split; [lia|]. intros [].
  - destruct (a =? n) eqn:E.
    + destruct (s_enc_inner l n b 0 (s_adapt (if a <? n then delta + 1 else delta) (h + 1) (h =? b)) (h + 1))
        as [[[d1 b1] h1] o1] eqn:E2.
      inversion H. subst. apply IH in E2. destruct E2 as [A [B C]].
      cbn [cnt]. rewrite E. rewrite len_cons. split; [lia|]. split; [destruct (a <? n); lia|]. intros _. lia.
    + apply IH in H. destruct H as [A [B C]]. cbn [cnt]. rewrite E. rewrite len_cons.
      split; [lia|]. split; [destruct (a <? n); lia|].
      intros [Hx|Hx]; [subst; lia|]. specialize (C Hx). lia.
Qed.

(* the two caller kinds: caller_add and caller_mul are checked for the external caller, unchecked for the internal *)
Lemma caller_add_ok cfg ext site a b : a + b <= U32_MAX -> caller_add cfg ext site a b = Ok (a + b).
Proof.
  intros H. unfold caller_add, checked_add, unchecked_add. replace (a + b <=? U32_MAX) with true by lia.
  destruct ext; reflexivity.
Qed.
Lemma caller_mul_ok cfg ext site a b : a * b <= U32_MAX -> caller_mul cfg ext site a b = Ok (a * b).
Proof.
  intros H. unfold caller_mul, checked_mul, unchecked_mul. replace (a * b <=? U32_MAX) with true by lia.
  destruct ext; reflexivity.
Qed.
Lemma caller_add_ext cfg site a b :
  caller_add cfg true site a b = Err \/ caller_add cfg true site a b = Ok (a + b).
Proof. unfold caller_add, checked_add. destruct (a + b <=? U32_MAX); [right|left]; reflexivity. Qed.
Lemma caller_mul_ext cfg site a b :
  caller_mul cfg true site a b = Err \/ caller_mul cfg true site a b = Ok (a * b).
Proof. unfold caller_mul, checked_mul. destruct (a * b <=? U32_MAX); [right|left]; reflexivity. Qed.

(* one element of the inner pass, once the possibly incremented delta is known *)
Lemma enc_inner_cons cfg ext a l cp bl delta bias h :
  enc_inner cfg ext (a :: l) cp bl delta bias h =
  rbind (if a <? cp then caller_add cfg ext 422 delta 1 else Ok delta) (fun delta =>
    if a =? cp then
      rbind (enc_vli (vli_fuel delta) delta BASE bias) (fun digits =>
      rbind (adapt delta (h + 1) (h =? bl)) (fun bias =>
      rbind (enc_inner cfg ext l cp bl 0 bias (h + 1)) (fun st =>
        match st with (d, b, p, o) => Ok (d, b, p, digits ++ o) end)))
    else enc_inner cfg ext l cp bl delta bias h).
Proof. reflexivity. Qed.

Lemma s_enc_inner_cons a l n b delta bias h :
  s_enc_inner (a :: l) n b delta bias h =
  let delta := if a <? n then delta + 1 else delta in
  if a =? n then
    match s_enc_inner l n b 0 (s_adapt delta (h + 1) (h =? b)) (h + 1) with
    | (d, bi, h', o) => (d, bi, h', s_enc_vli (s_vli_fuel delta) delta s_base bias ++ o)
    end
  else s_enc_inner l n b delta bias h.
Proof. reflexivity. Qed.

Section InnerTail.
  Variables (cfg ext : bool) (a : N) (l : list N) (cp bl bias h : N).
  (* what follows the delta update, as a function of the updated delta *)
  Let tail_m (delta : N) : res (N * N * N * list N) :=
    if a =? cp then
      rbind (enc_vli (vli_fuel delta) delta BASE bias) (fun digits =>
      rbind (adapt delta (h + 1) (h =? bl)) (fun bias =>
      rbind (enc_inner cfg ext l cp bl 0 bias (h + 1)) (fun st =>
        match st with (d, b, p, o) => Ok (d, b, p, digits ++ o) end)))
    else enc_inner cfg ext l cp bl delta bias h.
  Let tail_s (delta : N) : N * N * N * list N :=
    if a =? cp then
      match s_enc_inner l cp bl 0 (s_adapt delta (h + 1) (h =? bl)) (h + 1) with
      | (d, bi, h', o) => (d, bi, h', s_enc_vli (s_vli_fuel delta) delta s_base bias ++ o)
      end
    else s_enc_inner l cp bl delta bias h.

  Lemma tail_weak :
    (forall delta bias h, enc_inner cfg ext l cp bl delta bias h = Err \/
                          enc_inner cfg ext l cp bl delta bias h = Ok (s_enc_inner l cp bl delta bias h)) ->
    forall delta, tail_m delta = Err \/ tail_m delta = Ok (tail_s delta).
  Proof.
    intros IH delta. unfold tail_m, tail_s. destruct (a =? cp).
    - rewrite enc_vli_fuel_ok. cbn [rbind]. rewrite adapt_ok by lia. cbn [rbind].
      destruct (IH 0 (s_adapt delta (h + 1) (h =? bl)) (h + 1)) as [He|Ho]; [rewrite He; left; reflexivity|].
      rewrite Ho. cbn [rbind].
      destruct (s_enc_inner l cp bl 0 (s_adapt delta (h + 1) (h =? bl)) (h + 1)) as [[[d b] p] o]. right. reflexivity.
    - apply IH.
  Qed.

  Lemma tail_strong :
    (forall delta bias h, delta + len l <= U32_MAX ->
                          enc_inner cfg ext l cp bl delta bias h = Ok (s_enc_inner l cp bl delta bias h)) ->
    forall delta, delta + len l <= U32_MAX -> tail_m delta = Ok (tail_s delta).
  Proof.
    intros IH delta Hd. unfold tail_m, tail_s. destruct (a =? cp).
    - rewrite enc_vli_fuel_ok. cbn [rbind]. rewrite adapt_ok by lia. cbn [rbind].
      rewrite IH by lia. cbn [rbind].
      destruct (s_enc_inner l cp bl 0 (s_adapt delta (h + 1) (h =? bl)) (h + 1)) as [[[d b] p] o]. reflexivity.
    - apply IH. exact Hd.
  Qed.

  Lemma cons_m delta : enc_inner cfg ext (a :: l) cp bl delta bias h =
    rbind (if a <? cp then caller_add cfg ext 422 delta 1 else Ok delta) tail_m.
  Proof. reflexivity. Qed.
  Lemma cons_s delta : s_enc_inner (a :: l) cp bl delta bias h = tail_s (if a <? cp then delta + 1 else delta).
  Proof. reflexivity. Qed.
End InnerTail.

Lemma enc_inner_ext cfg l : forall cp bl delta bias h,
  enc_inner cfg true l cp bl delta bias h = Err \/
  enc_inner cfg true l cp bl delta bias h = Ok (s_enc_inner l cp bl delta bias h).
Proof.
  induction l as [|a l IH]; intros cp bl delta bias h.
  - right. reflexivity.
  - rewrite cons_m, cons_s.
    pose proof (tail_weak cfg true a l cp bl bias h (IH cp bl)) as T.
    destruct (a <? cp).
    + destruct (caller_add_ext cfg 422 delta 1) as [He|Ho]; rewrite ?He, ?Ho; [left; reflexivity|]. cbn [rbind]. apply T.
    + cbn [rbind]. apply T.
Qed.

Lemma enc_inner_small cfg ext l : forall cp bl delta bias h, delta + len l <= U32_MAX ->
  enc_inner cfg ext l cp bl delta bias h = Ok (s_enc_inner l cp bl delta bias h).
Proof.
  induction l as [|a l IH]; intros cp bl delta bias h Hd.
  - reflexivity.
  - rewrite cons_m, cons_s. rewrite len_cons in Hd.
    pose proof (tail_strong cfg ext a l cp bl bias h (IH cp bl)) as T.
    destruct (a <? cp).
    + rewrite caller_add_ok by lia. cbn [rbind]. apply T. lia.
    + cbn [rbind]. apply T. lia.
Qed.

Lemma enc_outer_S f cfg ext input il bl cp delta bias h :
  enc_outer (Datatypes.S f) cfg ext input il bl cp delta bias h =
  if h <? il then
    match min_ge cp input with
    | None => Panic 403
    | Some m =>
        rbind (caller_mul cfg ext 413 (m - cp) (h + 1)) (fun product =>
        rbind (caller_add cfg ext 413 delta product) (fun delta =>
        rbind (enc_inner cfg ext input m bl delta bias h) (fun st =>
          match st with (delta, bias, h, o) =>
            rbind (unchecked_add cfg 451 delta 1) (fun delta =>
            rbind (enc_outer f cfg ext input il bl (m + 1) delta bias h) (fun o2 => Ok (o ++ o2)))
          end)))
    end
  else Ok [].
Proof. reflexivity. Qed.

Lemma s_enc_outer_S f input il b n delta bias h :
  s_enc_outer (Datatypes.S f) input il b n delta bias h =
  if h <? il then
    let m := match s_min_ge n input with Some m => m | None => n end in
    match s_enc_inner input m b (delta + (m - n) * (h + 1)) bias h with
    | (delta, bias, h, o) => o ++ s_enc_outer f input il b (m + 1) (delta + 1) bias h
    end
  else [].
Proof. reflexivity. Qed.

Lemma min_exists input cp h : h = cnt (fun c => c <? cp) input -> h < len input ->
  exists m, s_min_ge cp input = Some m.
Proof.
  intros Hh Hlt. destruct (s_min_ge cp input) as [m|] eqn:E; [exists m; reflexivity|].
  exfalso. pose proof (s_min_ge_none input cp E) as Hall.
  rewrite (cnt_all (fun c => c <? cp) input) in Hh; [lia|]. intros c Hc. specialize (Hall c Hc). lia.
Qed.

Lemma enc_outer_ext cfg input (HL : len input <= U32_MAX) fuel : forall cp delta bias h bl,
  h = cnt (fun c => c <? cp) input -> len input - h < N.of_nat fuel ->
  enc_outer fuel cfg true input (len input) bl cp delta bias h = Err \/
  enc_outer fuel cfg true input (len input) bl cp delta bias h = Ok (s_enc_outer fuel input (len input) bl cp delta bias h).
Proof.
  induction fuel as [|f IH]; intros cp delta bias h bl Hh Hf; [cbn in Hf; lia|].
  rewrite enc_outer_S, s_enc_outer_S. destruct (h <? len input) eqn:E; [|right; reflexivity].
  destruct (min_exists input cp h Hh ltac:(lia)) as [m Em]. rewrite min_ge_eq, Em. cbv zeta.
  apply s_min_ge_some in Em. destruct Em as [Hin [Hle Hmin]].
  destruct (caller_mul_ext cfg 413 (m - cp) (h + 1)) as [He|Ho]; rewrite ?He, ?Ho; [left; reflexivity|]. cbn [rbind].
  destruct (caller_add_ext cfg 413 delta ((m - cp) * (h + 1))) as [He|Ho2]; rewrite ?He, ?Ho2; [left; reflexivity|]. cbn [rbind].
  destruct (enc_inner_ext cfg input m bl (delta + (m - cp) * (h + 1)) bias h) as [He|Ho3]; rewrite ?He, ?Ho3; [left; reflexivity|].
  cbn [rbind].
  destruct (s_enc_inner input m bl (delta + (m - cp) * (h + 1)) bias h) as [[[d1 b1] h1] o1] eqn:Es.
  apply s_inner_facts in Es. destruct Es as [Hh1 [Hd1 Hd2]]. specialize (Hd2 Hin).
  unfold unchecked_add. replace (d1 + 1 <=? U32_MAX) with true by lia. cbn [rbind].
  pose proof (cnt_eq_in input m Hin) as Hc.
  destruct (IH (m + 1) (d1 + 1) b1 h1 bl) as [He|Ho4].
  - rewrite Hh1, Hh. symmetry. apply cnt_lt_step; assumption.
  - rewrite Nat2N.inj_succ in Hf. lia.
  - rewrite He. left. reflexivity.
  - rewrite Ho4. right. reflexivity.
Qed.

(* the first loop *)
Lemma enc_basic_some input : forall il bl a b o, enc_basic input il bl = Some (a, b, o) ->
  a = il + len input /\ b = bl + cnt (fun c => c <? 128) input /\ o = filter (fun c => c <? 128) input
  /\ (il <= U32_MAX -> a <= U32_MAX).
Proof.
  induction input as [|c r IH]; intros il bl a b o H; cbn [enc_basic] in H.
  - inversion H. subst. cbn [cnt filter]. rewrite len_nil. repeat split; lia.
  - unfold checked_add in H. destruct (il + 1 <=? U32_MAX) eqn:E; [|discriminate].
    cbn [cnt filter]. rewrite len_cons.
    destruct (c <? 128) eqn:Ec.
    + destruct (enc_basic r (il + 1) (bl + 1)) as [[[a1 b1] o1]|] eqn:E2; [|discriminate].
      inversion H. subst. apply IH in E2. destruct E2 as [A [B [C D]]]. subst.
      repeat split; try lia; intros _; apply D; lia.
    + apply IH in H. destruct H as [A [B [C D]]]. subst. repeat split; try lia; intros _; apply D; lia.
Qed.

Lemma enc_basic_ok input : forall il bl, il + len input <= U32_MAX ->
  enc_basic input il bl = Some (il + len input, bl + cnt (fun c => c <? 128) input, filter (fun c => c <? 128) input).
Proof.
  induction input as [|c r IH]; intros il bl H; cbn [enc_basic cnt filter].
  - rewrite len_nil. do 3 f_equal; lia.
  - rewrite len_cons in H. unfold checked_add. replace (il + 1 <=? U32_MAX) with true by lia.
    rewrite len_cons. destruct (c <? 128).
    + rewrite IH by lia. do 3 f_equal; lia.
    + rewrite IH by lia. do 3 f_equal; lia.
Qed.

(* encode_into for the external caller: Overflow or the RFC 3492 result *)
Lemma s_encode_unfold s :
  s_encode s = filter (fun c => c <? 128) s ++ (if 0 <? cnt (fun c => c <? 128) s then [s_delimiter] else [])
     ++ s_enc_outer (Datatypes.S (length s)) s (len s) (cnt (fun c => c <? 128) s) 128 0 72 (cnt (fun c => c <? 128) s).
Proof. unfold s_encode. rewrite cnt_filter. reflexivity. Qed.

Lemma encode_into_ext cfg s :
  encode_into cfg true s = Err \/ encode_into cfg true s = Ok (s_encode s).
Proof.
  unfold encode_into. destruct (enc_basic s 0 0) as [[[il bl] basic]|] eqn:E; [|left; reflexivity].
  apply enc_basic_some in E. destruct E as [A [B [C D]]]. rewrite N.add_0_l in A, B. subst il bl basic.
  specialize (D ltac:(unfold U32_MAX; lia)).
  cbn [rbind].
  destruct (enc_outer_ext cfg s D (Datatypes.S (length s)) INITIAL_N 0 INITIAL_BIAS
              (cnt (fun c => c <? 128) s) (cnt (fun c => c <? 128) s) eq_refl) as [He|Ho].
  - pose proof (cnt_le (fun c => c <? 128) s). unfold len in *. lia.
  - rewrite He. left. reflexivity.
  - rewrite Ho. right. cbn [rbind]. rewrite s_encode_unfold. reflexivity.
Qed.

Lemma encode_safe cfg s : encode cfg s = Err \/ encode cfg s = Ok (s_encode s).
Proof. unfold encode. destruct (U32_MAX <? _); [left; reflexivity|apply encode_into_ext]. Qed.
Lemma encode_str_safe cfg s : encode_str cfg s = Err \/ encode_str cfg s = Ok (s_encode s).
Proof. unfold encode_str. destruct (U32_MAX <? _); [left; reflexivity|apply encode_into_ext]. Qed.

(* small inputs: no overflow for either caller *)
Lemma enc_outer_small cfg ext input (HL : len input <= 1000) (Husv : Forall (fun c => c <= 1114111) input) fuel :
  forall cp delta bias h bl,
  h = cnt (fun c => c <? cp) input -> len input - h < N.of_nat fuel -> delta <= len input -> cp <= 1114112 ->
  enc_outer fuel cfg ext input (len input) bl cp delta bias h = Ok (s_enc_outer fuel input (len input) bl cp delta bias h).
Proof.
  induction fuel as [|f IH]; intros cp delta bias h bl Hh Hf Hd Hcp; [cbn in Hf; lia|].
  rewrite enc_outer_S, s_enc_outer_S. destruct (h <? len input) eqn:E; [|reflexivity].
  destruct (min_exists input cp h Hh ltac:(lia)) as [m Em]. rewrite min_ge_eq, Em. cbv zeta.
  apply s_min_ge_some in Em. destruct Em as [Hin [Hle Hmin]].
  assert (Hm : m <= 1114111) by (rewrite Forall_forall in Husv; exact (Husv m Hin)).
  assert (Hprod : (m - cp) * (h + 1) <= 1114111 * 1000) by (apply N.mul_le_mono; lia).
  rewrite caller_mul_ok by (unfold U32_MAX; lia). cbn [rbind].
  rewrite caller_add_ok by (unfold U32_MAX; lia). cbn [rbind].
  rewrite enc_inner_small by (unfold U32_MAX; lia). cbn [rbind].
  destruct (s_enc_inner input m bl (delta + (m - cp) * (h + 1)) bias h) as [[[d1 b1] h1] o1] eqn:Es.
  apply s_inner_facts in Es. destruct Es as [Hh1 [Hd1 Hd2]]. specialize (Hd2 Hin).
  unfold unchecked_add. replace (d1 + 1 <=? U32_MAX) with true by (unfold U32_MAX; lia). cbn [rbind].
  pose proof (cnt_eq_in input m Hin) as Hc.
  rewrite IH; [reflexivity| | |lia|lia].
  - rewrite Hh1, Hh. symmetry. apply cnt_lt_step; assumption.
  - rewrite Nat2N.inj_succ in Hf. lia.
Qed.

Lemma usv_le c : is_usv c -> c <= 1114111.
Proof. unfold is_usv. lia. Qed.

Lemma encode_into_small cfg ext s : usv_list s -> (length s <= 1000)%nat ->
  encode_into cfg ext s = Ok (s_encode s).
Proof.
  intros Hu Hl. assert (HL : len s <= 1000) by (unfold len; lia).
  unfold encode_into. rewrite enc_basic_ok by (unfold U32_MAX; lia). rewrite !N.add_0_l.
  assert (Hchk : (if ext then Ok 0
                  else rbind (of_checked (checked_add (len s) 1)) (fun len_plus_one =>
                       of_checked (checked_mul len_plus_one (CHAR_MAX - INITIAL_N)))) = Ok (if ext then 0 else (len s + 1) * 1113983)).
  { destruct ext; [reflexivity|]. unfold checked_add. replace (len s + 1 <=? U32_MAX) with true by (unfold U32_MAX; lia).
    cbn [of_checked rbind]. unfold checked_mul. change (CHAR_MAX - INITIAL_N) with 1113983.
    replace ((len s + 1) * 1113983 <=? U32_MAX) with true by (unfold U32_MAX; lia). reflexivity. }
  rewrite Hchk. cbn [rbind].
  rewrite (enc_outer_small cfg ext s HL).
  - cbn [rbind]. rewrite s_encode_unfold. reflexivity.
  - unfold usv_list in Hu. eapply Forall_impl; [|exact Hu]. exact usv_le.
  - reflexivity.
  - pose proof (cnt_le (fun c => c <? 128) s). unfold len in *. lia.
  - lia.
  - unfold INITIAL_N, T_PUNY_INITIAL_N. lia.
Qed.

Lemma encode_internal_eq cfg s : usv_list s -> (length s <= 1000)%nat ->
  encode_internal cfg s = encode cfg s /\ encode cfg s = Ok (s_encode s).
Proof.
  intros Hu Hl. unfold encode_internal, encode.
  replace (U32_MAX <? N.of_nat (length s)) with false by (unfold U32_MAX; lia).
  rewrite !encode_into_small by assumption. split; reflexivity.
Qed.
