(* Proofs/C01_EqPathSpec.v - specification side: what the path state of Spec/Whatwg.v computes on any
   remaining text, for a URL that is neither special nor file: a list of segments (dot segments
   resolved by popping) and the rest starting at '?' / '#'; the path-or-authority state in front of it. *)
From RU Require Import Base.Prelude Spec.Whatwg Proofs.C01_EqRun.

(* the end of a segment: buffer B closes at a separator (sep) or at '?', '#', EOF *)
Definition fin (P : list (list N)) (B : list N) (sep : bool) : list (list N) :=
  if is_double_dot_segment B then (if sep then removelast P else removelast P ++ [[]])
  else if is_single_dot_segment B then (if sep then P else P ++ [[]])
  else P ++ [B].

Fixpoint spath (t : list N) (P : list (list N)) (B : list N) : list (list N) * list N :=
  match t with
  | [] => (fin P B false, [])
  | c :: r => if c =? 47 then spath r (fin P B true) []
              else if is_qh c then (fin P B false, t)
              else spath r P (B ++ utf8_percent_encode_cp in_path_set c)
  end.

(* The path state asks two things of the URL: is it special (then '\' separates like '/'), and is its scheme
   file (then the first segment and ".." treat drive letters specially).  Here `sep` stands for the separator
   test and `fn` for what closing a segment does to the list; `spath` is the instance (c = '/', fin). *)
Section PathText.
Variable sep : N -> bool.
Variable fn : list (list N) -> list N -> bool -> list (list N).

Fixpoint spath_g (t : list N) (P : list (list N)) (B : list N) : list (list N) * list N :=
  match t with
  | [] => (fn P B false, [])
  | c :: r => if sep c then spath_g r (fn P B true) []
              else if is_qh c then (fn P B false, t)
              else spath_g r P (B ++ utf8_percent_encode_cp in_path_set c)
  end.

Lemma spath_g_rest_head t : forall P B, match snd (spath_g t P B) with [] => True | c :: _ => is_qh c = true end.
Proof.
  induction t as [|c r IH]; intros P B; [exact I|]. cbn [spath_g].
  destruct (sep c); [apply IH|]. destruct (is_qh c) eqn:E; [exact E | apply IH].
Qed.

(* a property of segments that closing a segment and appending an encoded code point keep holds of the result *)
Lemma spath_g_forallb (ok : list N -> bool) : ok [] = true ->
  (forall P B s, forallb ok P = true -> ok B = true -> forallb ok (fn P B s) = true) ->
  (forall c B, sep c = false -> is_qh c = false -> ok B = true ->
               ok (B ++ utf8_percent_encode_cp in_path_set c) = true) ->
  forall t P B, forallb ok P = true -> ok B = true -> forallb ok (fst (spath_g t P B)) = true.
Proof.
  intros H0 Hfn Hc. induction t as [|c r IH]; intros P B HP HB; cbn [spath_g]; [exact (Hfn P B false HP HB)|].
  destruct (sep c) eqn:Es; [exact (IH _ [] (Hfn P B true HP HB) H0)|].
  destruct (is_qh c) eqn:Eq; [exact (Hfn P B false HP HB) | exact (IH P _ HP (Hc c B Es Eq HB))].
Qed.
End PathText.

Lemma fin_forallb (ok : list N -> bool) P B sep : ok [] = true ->
  forallb ok P = true -> ok B = true -> forallb ok (fin P B sep) = true.
Proof.
  intros H0 HP HB. unfold fin.
  assert (forallb ok (removelast P) = true) as HR.
  { rewrite forallb_forall in *. intros x Hx. apply HP. destruct P as [|p0 P]; [destruct Hx|].
    assert (p0 :: P <> []) as Hne by discriminate.
    rewrite (app_removelast_last [] Hne). apply in_or_app. left. exact Hx. }
  destruct (is_double_dot_segment B); [destruct sep; [exact HR | rewrite forallb_app, HR; cbn [forallb]; rewrite H0; reflexivity]|].
  destruct (is_single_dot_segment B); [destruct sep; [exact HP | rewrite forallb_app, HP; cbn [forallb]; rewrite H0; reflexivity]|].
  rewrite forallb_app, HP. cbn [forallb]. rewrite HB. reflexivity.
Qed.

Lemma spath_is_g t P B : spath t P B = spath_g (fun c => c =? 47) fin t P B.
Proof. reflexivity. Qed.

Lemma spath_rest_head t : forall P B, match snd (spath t P B) with [] => True | c :: _ => is_qh c = true end.
Proof. intros P B. rewrite spath_is_g. apply spath_g_rest_head. Qed.

Section PathRunsG.
Variable hp : bool -> list N -> option spec_host.
Variable input : list N.
Variable base : option spec_url.
Variables sp fl : bool.
Variable sep : N -> bool.
Variable fn : list (list N) -> list N -> bool -> list (list N).
Hypothesis Hsep : forall c, (c =? 47) || (sp && (c =? 92)) = sep c.
Hypothesis Hfn : forall u P B s,
  su_path u = SPList P -> list_eqb (su_scheme u) str_file = fl ->
  (if is_double_dot_segment B
   then (if negb s then path_append (shorten_path u) [] else shorten_path u)
   else if is_single_dot_segment B && negb s then path_append u []
        else if negb (is_single_dot_segment B)
             then path_append u (if list_eqb (su_scheme u) str_file && path_is_empty_list u && is_windows_drive_letter B
                                 then match B with a :: _ :: r => a :: 58 :: r | _ => B end else B)
             else u)
  = set_path u (SPList (fn P B s)).

Notation RunsN := (Runs hp input base).

Theorem runs_path_g : forall t pre B a b pw u P,
  input = pre ++ t -> su_path u = SPList P -> is_special u = sp ->
  list_eqb (su_scheme u) str_file = fl ->
  RunsN (at_pos StPath pre B a b pw u)
        (BDone (tail_url (set_path u (SPList (fst (spath_g sep fn t P B)))) (snd (spath_g sep fn t P B)))).
Proof.
  induction t as [|c r IH]; intros pre B a b pw u P Hin HP Hsp Hf.
  - cbn [spath_g fst snd tail_url].
    eapply R_end with (m' := at_pos StPath pre [] a b pw (set_path u (SPList (fn P B false)))).
    + rewrite (step_unfold _ _ _ _ _ _ _ _ _ _ _ Hin). cbn zeta. cbn [hd_error]. unfold st_path.
      cbn [is_eof orb cis andb m_url m_buf at_pos]. rewrite Hsp, andb_false_r. cbn [orb].
      rewrite (Hfn u P B false HP Hf). reflexivity.
    + cbn [m_ptr at_pos]. rewrite (len_split hp _ _ _ Hin). cbn [length]. lia.
  - (* what the state does at c, in terms of sep c and the two tests for '?' and '#' *)
    assert (step hp input base None (at_pos StPath pre B a b pw u)
            = if sep c || ((c =? 63) || (c =? 35))
              then let u1 := set_path u (SPList (fn P B (sep c))) in
                   let m1 := set_buf (set_url (at_pos StPath pre B a b pw u) u1) [] in
                   if c =? 63 then SCont (goto (set_url m1 (set_query u1 (Some []))) StQuery)
                   else if c =? 35 then SCont (goto (set_url m1 (set_fragment u1 (Some []))) StFragment)
                   else SCont m1
              else SCont (set_buf (at_pos StPath pre B a b pw u) (B ++ utf8_percent_encode_cp in_path_set c))) as Est.
    { rewrite (step_unfold _ _ _ _ _ _ _ _ _ _ _ Hin). cbn zeta. cbn [hd_error]. unfold st_path.
      cbn [is_eof orb cis andb m_url m_buf at_pos has_ov opt_is_some negb]. rewrite Hsp, Hsep.
      destruct (sep c || ((c =? 63) || (c =? 35))); [|reflexivity].
      rewrite (Hfn u P B (sep c) HP Hf). reflexivity. }
    pose proof (snoc_split _ _ _ _ Hin) as Hin'.
    cbn [spath_g]. destruct (sep c) eqn:Esep.
    + (* separator: neither '?' nor '#' *)
      assert ((c =? 63) = false /\ (c =? 35) = false) as [E63 E35].
      { rewrite <- Hsep in Esep. destruct sp; cbn [andb] in Esep; lia. }
      eapply runs_step_next with (st' := StPath) (buf' := []) (u' := set_path u (SPList (fn P B true))); [exact Hin | |].
      * rewrite Est. cbn [orb]. rewrite E63, E35. reflexivity.
      * exact (IH (pre ++ [c]) [] a b pw (set_path u (SPList (fn P B true))) (fn P B true) Hin' eq_refl Hsp Hf).
    + unfold is_qh. cbn [orb] in Est. destruct (c =? 63) eqn:E63.
      * cbn [orb fst snd tail_url]. rewrite E63.
        eapply runs_step_next with (st' := StQuery) (buf' := [])
          (u' := set_query (set_path u (SPList (fn P B false))) (Some [])); [exact Hin | |].
        -- rewrite Est. reflexivity.
        -- exact (runs_query hp input base r (pre ++ [c]) [] a b pw (set_query (set_path u (SPList (fn P B false))) (Some [])) [] Hin' eq_refl).
      * destruct (c =? 35) eqn:E35.
        -- cbn [orb fst snd tail_url]. rewrite E63.
           eapply runs_step_next with (st' := StFragment) (buf' := [])
             (u' := set_fragment (set_path u (SPList (fn P B false))) (Some [])); [exact Hin | |].
           ++ rewrite Est. reflexivity.
           ++ exact (runs_fragment hp input base r (pre ++ [c]) [] a b pw (set_fragment (set_path u (SPList (fn P B false))) (Some [])) [] Hin' eq_refl).
        -- cbn [orb].
           eapply runs_step_next with (st' := StPath) (buf' := B ++ utf8_percent_encode_cp in_path_set c) (u' := u);
             [exact Hin | |].
           ++ rewrite Est. reflexivity.
           ++ exact (IH (pre ++ [c]) _ a b pw u P Hin' HP Hsp Hf).
Qed.

End PathRunsG.

Section PathRuns.
Variable hp : bool -> list N -> option spec_host.
Variable input : list N.
Variable base : option spec_url.

Notation RunsN := (Runs hp input base).

Lemma path_seg_update u P B sep :
  su_path u = SPList P -> list_eqb (su_scheme u) str_file = false ->
  (if is_double_dot_segment B
   then (if negb sep then path_append (shorten_path u) [] else shorten_path u)
   else if is_single_dot_segment B && negb sep then path_append u []
        else if negb (is_single_dot_segment B)
             then path_append u (if list_eqb (su_scheme u) str_file && path_is_empty_list u && is_windows_drive_letter B
                                 then match B with a :: _ :: r => a :: 58 :: r | _ => B end else B)
             else u)
  = set_path u (SPList (fin P B sep)).
Proof.
  intros HP Hf. unfold fin, shorten_path, path_append. rewrite Hf. cbn [andb].
  destruct (is_double_dot_segment B).
  - rewrite HP. cbn [su_path set_path]. destruct sep; cbn [negb]; destruct u; reflexivity.
  - destruct (is_single_dot_segment B); cbn [andb negb].
    + destruct sep; cbn [negb]; rewrite ?HP; destruct u; cbn in *; subst; reflexivity.
    + rewrite HP. reflexivity.
Qed.

Theorem runs_path : forall t pre B a b pw u P,
  input = pre ++ t -> su_path u = SPList P -> is_special u = false ->
  list_eqb (su_scheme u) str_file = false ->
  RunsN (at_pos StPath pre B a b pw u)
        (BDone (tail_url (set_path u (SPList (fst (spath t P B)))) (snd (spath t P B)))).
Proof.
  intros t pre B a b pw u P. rewrite spath_is_g.
  apply (runs_path_g hp input base false false); [intros c; apply orb_false_r | exact path_seg_update].
Qed.

(* path or authority state, next code point is not '/': the path state starts at that code point *)
Theorem runs_path_or_authority pre t a b pw u res :
  input = pre ++ t -> starts_with_cp 47 t = false ->
  RunsN (at_pos StPath pre [] a b pw u) res ->
  RunsN (at_pos StPathOrAuthority pre [] a b pw u) res.
Proof.
  intros Hin H47 HR.
  destruct t as [|c r].
  - (* EOF: the state moves to the path state and sets the pointer to |pre| - 1; the increment of the loop (R_next)
       brings it back to |pre| = |input|, where the path state runs at EOF *)
    eapply R_next with (m' := mkM StPath (Z.of_nat (length pre) - 1)%Z [] a b pw u).
    + rewrite (step_unfold _ _ _ _ _ _ _ _ _ _ _ Hin). reflexivity.
    + cbn [m_ptr]. rewrite (len_split hp _ _ _ Hin). cbn [length]. lia.
    + unfold inc_ptr, set_ptr. cbn [m_ptr m_state m_buf m_at m_br m_pw m_url].
      unfold at_pos in HR. replace (Z.of_nat (length pre) - 1 + 1)%Z with (Z.of_nat (length pre)) by lia. exact HR.
  - eapply runs_step_stay with (st' := StPath) (buf' := []) (u' := u); [exact Hin | discriminate | | exact HR].
    rewrite (step_unfold _ _ _ _ _ _ _ _ _ _ _ Hin). cbn zeta. cbn [hd_error]. unfold st_path_or_authority.
    cbn [cis starts_with_cp] in *. rewrite H47. reflexivity.
Qed.

End PathRuns.
