(* Proofs/C07_EqPort.v - C07 equivalence for the port setter: on every pair of related records and
   for every value outside class 8 of Known_C07 (a non-empty value made of tab / newline only on a
   URL with a port, F-C07-9), url::quirks::set_port does not panic and leaves a record related to
   the result of the Standard's port attribute setter: "cannot have a username/password/port" =>
   ignored; the empty value removes the port; otherwise the port state with a state override - the
   leading digits (tab / newline removed) are the port, the default port of the scheme is stored as
   null, no digit or a number above 65535 => the assignment is ignored. *)
From RU Require Import Base.Prelude Base.Utf8 Base.Utf8Facts Model.AsciiSet Gen.Tables Model.PercentEncoding
  Model.HostT Model.UrlRecord Model.Parser Model.Setters Model.WF Model.KnownC01 Model.KnownC07 Spec.Whatwg
  Proofs.ListN Proofs.C03_WF Proofs.C06_List Proofs.C06_WFI Proofs.C06_Tail Proofs.C06_Suffix Proofs.C06_Front
  Proofs.C06_Steps Proofs.C06_FragQuery Proofs.C06_Port Proofs.C06_Cred Proofs.C06_Atomic
  Proofs.C02_Enc Proofs.C01_Tables Proofs.C01_EqRun Proofs.C01_EqEnc Proofs.C01_EqApi Proofs.C08_Input
  Proofs.C07_Defs Proofs.C07_Setters Proofs.C07_Corr Proofs.C07_SpecRun Proofs.C07_EqCred.

(* parse_port in a setter, in the Standard's terms *)
Definition port_acc (a d : N) : N := a * 10 + (d - 48).

Lemma decimal_value_fold s : decimal_value s = fold_left port_acc s 0.
Proof. reflexivity. Qed.

Lemma fold_port_ge ds : forall p, p <= fold_left port_acc ds p.
Proof.
  induction ds as [|d r IH]; intros p; cbn [fold_left]; [lia|].
  specialize (IH (port_acc p d)). unfold port_acc in *. lia.
Qed.

Lemma notnl_cons c r : notnl (c :: r) = if is_tnl c then notnl r else c :: notnl r.
Proof. unfold notnl. cbn [filter]. change (is_ascii_tab_or_newline c) with (is_tnl c). destruct (is_tnl c); reflexivity. Qed.

Definition is_nil (l : list N) : bool := match l with [] => true | _ => false end.

Lemma parse_port_loop_setter l : forall p any, p <= 65535 ->
  let ds := take_digits (notnl l) in
  let val := fold_left port_acc ds p in
  match parse_port_loop CSetter l p any with
  | POk (p', any', rem) => p' = val /\ val <= 65535 /\ any' = any || negb (is_nil ds) /\ notnl l = ds ++ notnl rem
  | PErr _ => 65535 < val
  | PPanic => False
  end.
Proof.
  induction l as [|c r IH]; intros p any Hp; cbn zeta.
  - cbn [parse_port_loop notnl filter take_digits fold_left is_nil negb]. rewrite orb_false_r. auto.
  - cbn [parse_port_loop]. rewrite notnl_cons. destruct (is_tnl c) eqn:Et; [exact (IH p any Hp)|].
    cbn [take_digits]. destruct (is_digit c) eqn:Ed.
    + cbn [fold_left is_nil negb]. fold (port_acc p c).
      destruct (65535 <? port_acc p c) eqn:Eo.
      * pose proof (fold_port_ge (take_digits (notnl r)) (port_acc p c)). lia.
      * assert (port_acc p c <= 65535) as Hp' by lia. specialize (IH (port_acc p c) true Hp'). cbn zeta in IH.
        destruct (parse_port_loop CSetter r (port_acc p c) true) as [[[p' any'] rem]|e|]; [|exact IH|exact IH].
        destruct IH as (A & B & Cc & D). rewrite orb_true_r. cbn [orb] in Cc.
        split; [exact A|]. split; [exact B|]. split; [exact Cc|]. cbn [app]. f_equal. exact D.
    + cbn [ctx_eqb andb fold_left is_nil negb app]. rewrite orb_false_r. rewrite notnl_cons, Et. auto.
Qed.

(* what url::quirks::set_port hands to set_port_internal: None = the assignment is ignored *)
Definition port_arg (dflt : option N) (v : list N) : option (option N) :=
  match take_digits (notnl v) with
  | [] => if is_nil (notnl v) then Some None else None
  | ds => let val := decimal_value ds in
          if 65535 <? val then None else Some (if opt_eqb (Some val) dflt then None else Some val)
  end.

Lemma parse_port_setter dflt v :
  match parse_port CSetter dflt v with
  | POk (p, _) => port_arg dflt v = Some p /\ match p with Some x => x <= 65535 | None => True end
  | PErr _ => port_arg dflt v = None
  | PPanic => False
  end.
Proof.
  unfold parse_port, port_arg.
  pose proof (parse_port_loop_setter v 0 false ltac:(lia)) as K. cbn zeta in K.
  destruct (parse_port_loop CSetter v 0 false) as [[[p any] rem]|e|]; cbn [pbind]; [| |exact K].
  - destruct K as (A & B & Cc & D). cbn [orb] in Cc. cbn [ctx_eqb andb].
    destruct (take_digits (notnl v)) as [|d ds] eqn:Eds.
    + cbn [is_nil negb] in Cc. subst any. cbn [negb andb orb]. cbn [app] in D.
      rewrite inp_is_empty_ntnl. change (ntnl rem) with (notnl rem). rewrite <- D.
      destruct (notnl v); cbn [is_nil negb]; auto.
    + cbn [is_nil negb] in Cc. subst any. cbn [negb andb orb]. cbn zeta. rewrite decimal_value_fold.
      replace (65535 <? fold_left port_acc (d :: ds) 0) with false by lia. rewrite <- A.
      split; [reflexivity|]. destruct (opt_eqb (Some p) dflt); [exact I | lia].
  - destruct (take_digits (notnl v)) as [|d ds] eqn:Eds.
    + cbn [fold_left] in K. lia.
    + cbn zeta. rewrite decimal_value_fold. replace (65535 <? fold_left port_acc (d :: ds) 0) with true by lia. reflexivity.
Qed.

(* set_port_internal keeps the layout tight *)
Lemma with_port_tight u p : wf_b u = true -> host_text_ok u -> has_host u = true ->
  tight u -> tight (with_port u p).
Proof.
  intros W HT Hh T.
  pose proof (has_host_authority u W Hh) as Ha. pose proof (wf_auth_facts u W Ha) as F.
  pose proof (af_ue F); pose proof (af_hs F); pose proof (af_he F); pose proof (af_ps F); pose proof (af_len F).
  destruct (HT Hh) as (T1 & _).
  unfold tight, with_port. cbn [username_end scheme_end ser]. intros Heq.
  unfold byte_eqb. rewrite nnth_app_lt by (rewrite nlen_nfirstn; lia). rewrite nnth_nfirstn by lia.
  exact (T Heq).
Qed.

Section Port.
Variable dbg : bool.
Variable shp : bool -> list N -> option spec_host.
Variable shs : spec_host -> list N.

Notation corr := (corr dbg shs).

(* the port of a URL with a host is replaced *)
Lemma corr_port u su p : corr u su -> has_host u = true ->
  match p with Some x => x <= 65535 | None => True end ->
  exists u', set_port_internal dbg u p = Some u' /\ corr u' (Whatwg.set_port su p).
Proof.
  intros C Hh Hp. pose proof (co_wf _ _ _ _ C) as W. pose proof (co_ht _ _ _ _ C) as HT.
  destruct (set_port_internal_ok dbg u p W HT Hh Hp) as (u' & E & W' & HT' & (I1 & I2 & I3 & I4) & P' & SB).
  exists u'. split; [exact E|].
  apply (corr_cred dbg shs u su u' _ C Hh W' HT');
    cbn [Whatwg.set_port su_scheme su_username su_password su_host su_port su_path su_query su_fragment];
    try assumption; try reflexivity.
  - rewrite (set_port_internal_eval dbg u p W Hh) in E. injection E as E.
    pose proof (corr_tight dbg shs u su C Hh) as T.
    destruct (opt_eqb (port u) p); subst u'; [exact T | exact (with_port_tight u p W HT Hh T)].
  - rewrite I2. exact (co_user _ _ _ _ C).
  - rewrite I3. exact (co_pass _ _ _ _ C).
  - exact (co_uclean _ _ _ _ C).
Qed.

Lemma set_port_none_same su : su_port su = None -> Whatwg.set_port su None = su.
Proof. destruct su; cbn. intros ->. reflexivity. Qed.

Theorem port_step u su v : corr u su -> known_c07 u QPort v = 0 ->
  exists u' su', option_map fst (q_set_port dbg u v) = Some u' /\ spec_step shp QPort su v = Some su'
    /\ corr u' su'.
Proof.
  intros C Hk. pose proof (co_wf _ _ _ _ C) as W. pose proof (co_ht _ _ _ _ C) as HT.
  unfold q_set_port, spec_step. cbn [setter_of_q spec_set].
  rewrite (corr_cannot_have dbg shs u su C).
  destruct (cannot_have_username_password_port su) eqn:Ecs; cbn [bindo].
  { exists u, su. split; [reflexivity|]. split; [reflexivity | exact C]. }
  destruct (chcp_eval u W) as (c & Ec & Hc). rewrite (corr_cannot_have dbg shs u su C), Ecs in Ec.
  inversion Ec; subst c. specialize (Hc eq_refl).
  rewrite (co_scheme _ _ _ _ C). cbn [bindo].
  pose proof (parse_port_setter (default_port (su_scheme su)) v) as K. unfold input_new_no_trim.
  (* the Standard's side, in terms of port_arg *)
  assert (match (if list_eqb v [] then SetTo (Whatwg.set_port su None)
                 else after_override (spec_basic_url_parse_override shp v su StPort)) with
          | SetTo su' => su' = match port_arg (default_port (su_scheme su)) v with
                               | Some p => Whatwg.set_port su p
                               | None => su
                               end
                         \/ (v <> [] /\ notnl v = [] /\ su' = su)
          | SetOutOfFuel => False
          end) as S.
  { destruct v as [|c0 r0]; [left; reflexivity|]. cbn [list_eqb].
    rewrite spec_port_some. unfold port_arg, port_outcome.
    destruct (take_digits (notnl (c0 :: r0))) as [|d ds] eqn:Eds.
    - cbn [outcome_url]. destruct (notnl (c0 :: r0)) eqn:En; cbn [is_nil].
      + right. repeat split. discriminate.
      + left. reflexivity.
    - left. destruct (65535 <? decimal_value (d :: ds)); cbn [outcome_url]; [reflexivity|].
      unfold port_is_default. rewrite <- default_ports_are_the_standards.
      destruct (default_port (su_scheme su)) as [dp|]; cbn [opt_eqb]; [|reflexivity].
      rewrite N.eqb_sym. reflexivity. }
  destruct (if list_eqb v [] then SetTo (Whatwg.set_port su None)
            else after_override (spec_basic_url_parse_override shp v su StPort)) as [su'|]; [|contradiction].
  destruct (parse_port CSetter (default_port (su_scheme su)) v) as [[p rem]|e|]; [| |contradiction].
  - destruct K as [Ka Kp]. destruct (corr_port u su p C Hc Kp) as (u' & E & C'). rewrite E. cbn [bindo option_map fst].
    exists u', su'. split; [reflexivity|]. split; [reflexivity|].
    destruct S as [->|(Hv & Hn & ->)]; [rewrite Ka; exact C'|].
    (* tab / newline only: outside class 8 there is no port to remove *)
    unfold port_arg in Ka. rewrite Hn in Ka. cbn [take_digits is_nil] in Ka. injection Ka as <-.
    unfold known_c07 in Hk. change (no_tnl v) with (notnl v) in Hk. rewrite Hn in Hk.
    assert (port u = None) as Epn.
    { destruct v; [contradiction|]. cbn [negb andb] in Hk. destruct (port u); [discriminate Hk | reflexivity]. }
    rewrite (set_port_none_same su) in C'; [exact C'|]. rewrite <- (co_port _ _ _ _ C). exact Epn.
  - cbn [option_map fst]. exists u, su'. split; [reflexivity|]. split; [reflexivity|].
    destruct S as [->|(_ & _ & ->)]; [rewrite K|]; exact C.
Qed.

End Port.
