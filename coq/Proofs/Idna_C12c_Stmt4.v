(* Proofs/Idna_C12c_Stmt4.v - C12_statement3 is refuted; C12_statement4 adds the premise NvMapFix, which the
   adapter of the refutation violates (mapad_not_mapfix).
   - C12_statement3 (Proofs/Idna_C12b_Stmt3.v) is FALSE for an abstract adapter that satisfies its six adapter premises:
     none of them relates map_normalize to normalize_validate on a text that normalize_validate ACCEPTS (ok_stable goes
     from map_normalize output to normalize_validate only).  Adapter mapad: map_normalize rewrites U+00E9 to U+00EA,
     normalize_validate accepts every scalar value.  xn--9ca is accepted (Borrowed), ToUnicode shows U+00E9, and ToASCII
     of that is xn--bda: clause a_of_u fails.  A refutation of the STATEMENT, not a defect of the crate: the real
     normalize_validate accepts a label only if every character is valid (maps to itself) and the label is NFC.
   - the missing premise, NvMapFix: a text that normalize_validate returns unchanged and without U+FFFD is a fixed point
     of map_normalize.  Sampled on the real idna_adapter by the `adapter` stream as ok_nv_mapfix.
   - C12_statement4 = C12_statement3 with the premise NvMapFix.  Neither proved nor refuted.  Proved of it: clause
     u_of_a (c12_u_of_a, Proofs/Idna_C12c_UofA.v, which needs neither NvMapFix nor the exclusion of Known_C12 /
     Known_C11), all "no error" facts, and the clauses u_of_a, a_of_u, u_idem on names without an accepted xn-- input
     label (c12_round, Proofs/Idna_C12c_Round.v).  With the further premise NvNoGrow all of it holds: C12_statement5,
     c12_5 (Proofs/Idna_C12d_Stmt5.v). *)
From RU Require Import Base.Prelude Base.Utf8 Base.U32_c13 Gen.Tables Model.Punycode Model.Uts46
  Proofs.Idna_Sim Proofs.Idna_Api Proofs.Idna_Known Proofs.Idna_Hyp Proofs.Idna_Redisc Proofs.Idna_C12 Proofs.Idna_C10_Deny Proofs.Idna_C10_Prefix
  Proofs.Idna_C10_Inner Proofs.Idna_C10_Walk Proofs.Idna_C10b_Long Proofs.Idna_C10b_Stmt Proofs.Idna_WalkEnc
  Proofs.Idna_C10c_Puny Proofs.Idna_C10c_Drun Proofs.Idna_C10c_Idem Proofs.Idna_C10c_Example Proofs.Idna_C10c_Refute Proofs.Idna_C12b_Stmt3
  Proofs.Idna_C12c_UofA.

Definition NvMapFix (A : adapter) : Prop := forall l,
  existsb is_fffd (normalize_validate A l) = false -> normalize_validate A l = l -> map_normalize A l = l.

Section Statement4.
Variable A : adapter.
Variable cfg : bool.
Definition C12_statement4 : Prop :=
  AdapterOK A -> AdapterUSV A -> NvNoTrunc A -> NvIdem A -> AsciiNoMark A -> MapPrefix A -> NvMapFix A -> forall d deny hy b a,
  bytes d -> valid_deny deny -> Known_C12 A cfg d deny hy = false -> Known_C11 A cfg d deny hy = false ->
  to_ascii A cfg d deny hy DIgnore = Ok (b, a) -> Known_C10_long a = false ->
  let u := ui_text (to_unicode A cfg d deny hy) in
  (ui_text (to_unicode A cfg a deny hy) = u /\ ui_err (to_unicode A cfg a deny hy) = false) /\
  (exists b', to_ascii A cfg (utf8_encode u) deny hy DIgnore = Ok (b', a)) /\
  (ui_text (to_unicode A cfg (utf8_encode u) deny hy) = u /\ ui_err (to_unicode A cfg (utf8_encode u) deny hy) = false) /\
  (forall p, exists b', to_ascii A cfg (utf8_encode (ui_text (to_user_interface A cfg d deny hy p))) deny hy DIgnore = Ok (b', a)).
End Statement4.

(* the adapter of the refutation *)
Definition map_e (c : N) : N := if c =? 233 then 234 else san_low c.
Definition mapad : adapter :=
  {| map_normalize := map map_e; normalize_validate := map san_id;
     joining_type := fun _ => 0; bidi_class := toy_bc;
     is_mark := fun _ => false; is_virama := fun _ => false |}.

Lemma map_e_usv c : is_usv (map_e c).
Proof. unfold map_e. destruct (c =? 233); [unfold is_usv; lia|apply san_low_usv]. Qed.
Lemma map_e_lower c : map_e (to_lower c) = map_e c.
Proof.
  unfold map_e. rewrite san_low_lower.
  replace (to_lower c =? 233) with (c =? 233); [reflexivity|]. unfold to_lower, is_upper. destruct ((65 <=? c) && (c <=? 90)) eqn:E; [lia|reflexivity].
Qed.
Lemma map_e_ascii c : c < 128 -> map_e c = to_lower c.
Proof. intros H. unfold map_e. replace (c =? 233) with false by lia. apply san_low_ascii. exact H. Qed.

Lemma mapad_premises : AdapterOK mapad /\ AdapterUSV mapad /\ NvNoTrunc mapad /\ NvIdem mapad /\ AsciiNoMark mapad /\ MapPrefix mapad.
Proof.
  apply (pointwise_premises map_e san_id map_e_usv map_e_lower map_e_ascii san_id_usv).
  - intros c. exact (san_id_fix _ (map_e_usv c)).
  - intros c _. exact (san_id_fix _ (san_id_usv c)).
Qed.
Lemma mapad_not_mapfix : ~ NvMapFix mapad.
Proof. intros H. specialize (H [233] eq_refl eq_refl). vm_compute in H. discriminate. Qed.

Definition W_stmt3 : list N := [120; 110; 45; 45; 57; 99; 97].      (* xn--9ca *)
Definition W_stmt3_2 : list N := [120; 110; 45; 45; 98; 100; 97].   (* xn--bda *)
Lemma w_c12_stmt3 :
  to_ascii mapad false W_stmt3 DENY_EMPTY HAllow DIgnore = Ok (true, W_stmt3) /\
  Known_C12 mapad false W_stmt3 DENY_EMPTY HAllow = false /\ Known_C11 mapad false W_stmt3 DENY_EMPTY HAllow = false /\
  Known_C10_long W_stmt3 = false /\
  to_unicode mapad false W_stmt3 DENY_EMPTY HAllow = UI false [233] false /\
  to_ascii mapad false (utf8_encode [233]) DENY_EMPTY HAllow DIgnore = Ok (false, W_stmt3_2).
Proof. vm_compute. repeat split; reflexivity. Qed.

Theorem c12_statement3_refuted : exists A cfg,
  AdapterOK A /\ AdapterUSV A /\ NvNoTrunc A /\ NvIdem A /\ AsciiNoMark A /\ MapPrefix A /\ ~ C12_statement3 A cfg.
Proof.
  exists mapad, false. destruct mapad_premises as (H1 & H2 & H3 & H4 & H5 & H6).
  repeat (split; [assumption|]). intros HS.
  destruct w_c12_stmt3 as (E1 & K1 & K2 & K3 & U1 & E2).
  assert (Hb : bytes W_stmt3) by (unfold W_stmt3; repeat constructor; unfold is_byte; lia).
  destruct (HS H1 H2 H3 H4 H5 H6 W_stmt3 DENY_EMPTY HAllow true W_stmt3 Hb deny_empty_valid K1 K2 E1 K3) as (_ & (b' & Hx) & _).
  rewrite U1 in Hx. cbn [ui_text] in Hx. rewrite E2 in Hx. inversion Hx.
Qed.

(* the premises of C12_statement4 are satisfiable *)
Definition san_nv (c : N) : N := if is_upper c then FFFD else san_id c.
Definition lowsan4 : adapter :=
  {| map_normalize := map san_low; normalize_validate := map san_nv;
     joining_type := fun _ => 0; bidi_class := toy_bc;
     is_mark := fun _ => false; is_virama := fun _ => false |}.

Lemma san_nv_usv c : is_usv (san_nv c).
Proof. unfold san_nv. destruct (is_upper c); [unfold is_usv, FFFD, REPLACEMENT; lia|apply san_id_usv]. Qed.
Lemma san_nv_fix c : is_usv c -> is_upper c = false -> san_nv c = c.
Proof. intros H1 H2. unfold san_nv. rewrite H2. apply san_id_fix. exact H1. Qed.
Lemma san_low_noupper c : is_upper (san_low c) = false.
Proof.
  unfold san_low. destruct (is_usvb c); [|reflexivity]. unfold to_lower, is_upper. destruct ((65 <=? c) && (c <=? 90)) eqn:E; [lia|exact E].
Qed.
Lemma san_nv_inv c : san_nv c = c -> c <> FFFD -> is_usv c /\ is_upper c = false.
Proof.
  unfold san_nv. destruct (is_upper c) eqn:E; [intros H Hn; symmetry in H; contradiction|]. intros H _. split; [|reflexivity].
  rewrite <- H. apply san_id_usv.
Qed.
Lemma san_low_fix c : is_usv c -> is_upper c = false -> san_low c = c.
Proof.
  intros H1 H2. unfold san_low. apply usvb_spec in H1. rewrite H1. unfold to_lower. rewrite H2. reflexivity.
Qed.

Lemma lowsan4_premises :
  AdapterOK lowsan4 /\ AdapterUSV lowsan4 /\ NvNoTrunc lowsan4 /\ NvIdem lowsan4 /\ AsciiNoMark lowsan4 /\ MapPrefix lowsan4 /\ NvMapFix lowsan4.
Proof.
  assert (H : AdapterOK lowsan4 /\ AdapterUSV lowsan4 /\ NvNoTrunc lowsan4 /\ NvIdem lowsan4 /\ AsciiNoMark lowsan4 /\ MapPrefix lowsan4).
  { apply (pointwise_premises san_low san_nv san_low_usv san_low_lower san_low_ascii san_nv_usv).
    - intros c. exact (san_nv_fix _ (san_low_usv c) (san_low_noupper c)).
    - intros c Hc. unfold san_nv in *. destruct (is_upper c) eqn:E; [contradiction Hc; reflexivity|].
      apply san_nv_fix; [apply san_id_usv|]. unfold san_id. destruct (is_usvb c); [exact E|reflexivity]. }
  destruct H as (H1 & H2 & H3 & H4 & H5 & H6). repeat (split; [assumption|]).
  intros l Hf Hl. cbn [lowsan4 map_normalize normalize_validate] in *. rewrite Hl in Hf.
  revert Hl Hf. induction l as [|c r IH]; intros Hl Hf; [reflexivity|]. cbn [map existsb] in *. inversion Hl as [[Hc Hr]].
  apply orb_false_iff in Hf. destruct Hf as [Hf1 Hf2]. rewrite Hc, Hr.
  assert (Hn : c <> FFFD) by (intros ->; unfold is_fffd in Hf1; rewrite N.eqb_refl in Hf1; discriminate).
  destruct (san_nv_inv c Hc Hn) as [Hu1 Hu2]. rewrite (san_low_fix c Hu1 Hu2), (IH Hr Hf2). reflexivity.
Qed.

(* under lowsan4 "A.B<u-umlaut>cher" goes through all four clauses *)
Example w_c12_stmt4 :
  to_ascii lowsan4 true W_idem3 DENY_URL HCheck DIgnore = Ok (false, W_idem3_A) /\
  Known_C12 lowsan4 true W_idem3 DENY_URL HCheck = false /\ Known_C11 lowsan4 true W_idem3 DENY_URL HCheck = false /\
  Known_C10_long W_idem3_A = false /\
  to_unicode lowsan4 true W_idem3 DENY_URL HCheck = UI false [97; 46; 98; 252; 99; 104; 101; 114] false /\
  to_unicode lowsan4 true W_idem3_A DENY_URL HCheck = UI false [97; 46; 98; 252; 99; 104; 101; 114] false /\
  to_ascii lowsan4 true (utf8_encode [97; 46; 98; 252; 99; 104; 101; 114]) DENY_URL HCheck DIgnore = Ok (false, W_idem3_A) /\
  to_unicode lowsan4 true (utf8_encode [97; 46; 98; 252; 99; 104; 101; 114]) DENY_URL HCheck = UI false [97; 46; 98; 252; 99; 104; 101; 114] false.
Proof. vm_compute. repeat split; reflexivity. Qed.
