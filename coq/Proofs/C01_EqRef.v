(* Proofs/C01_EqRef.v - C01 equivalence for the two simplest references against a base:
   "#fragment" and "?query[#fragment]".  `related` ties a model record to a record of the Standard
   (same ten API strings plus the structural facts the two states need); the results of the two
   classes are related again. *)
From RU Require Import Base.Prelude Gen.Tables Model.HostT Model.UrlRecord Model.Parser Model.Setters Model.WF
  Model.KnownC08 Spec.Whatwg Proofs.ListN Proofs.C02_Parts Proofs.C02_Opaque Proofs.C03_WF Proofs.C06_List
  Proofs.C06_WFI Proofs.C06_Tail Proofs.C06_Steps Proofs.C01_Tables Proofs.C08_Input Proofs.C08_Simple
  Proofs.C01_EqRun Proofs.C01_EqEnc Proofs.C01_EqApi Proofs.C01_EqOpaque.

(* what the no scheme / relative / file states rely on without checking: a URL record with an opaque
   path has no host, credentials or port; a file URL has no credentials or port *)
Definition spec_valid (sb : spec_url) : Prop :=
  (has_opaque_path sb = true ->
     su_host sb = None /\ su_username sb = [] /\ su_password sb = [] /\ su_port sb = None)
  /\ (su_scheme sb = str_file -> su_username sb = [] /\ su_password sb = [] /\ su_port sb = None).

Record related (dbg : bool) (shs : spec_host -> list N) (b : url) (sb : spec_url) : Prop := mk_related {
  rel_wf : wf_b b = true;
  rel_api : api_of_model dbg b = Some (spec_api_list shs sb);
  rel_bf : b_before_fragment b = serialize_url shs sb true;
  rel_bq : b_before_query b = serialize_url shs (set_query sb None) true;
  rel_cbb : cannot_be_a_base b = Some (has_opaque_path sb);
  rel_sch : b_scheme b = su_scheme sb;
  rel_valid : spec_valid sb
}.

(* specification side *)
Section SpecRef.
Variable shp : bool -> list N -> option spec_host.

Lemma list_eqb_refl l : list_eqb l l = true.
Proof. apply list_eqb_spec. reflexivity. Qed.

Lemma list_eqb_false a b : a <> b -> list_eqb a b = false.
Proof. intros H. destruct (list_eqb a b) eqn:E; [|reflexivity]. apply list_eqb_spec in E. contradiction. Qed.

Theorem spec_fragment_only input sb f : spec_clean input = 35 :: f -> spec_valid sb ->
  spec_basic_url_parse shp input (Some sb) = BDone (set_fragment sb (Some (upe in_fragment_set f))).
Proof.
  intros Hc [V1 V2]. apply spec_parse_of_runs. rewrite Hc.
  apply runs_no_scheme; [reflexivity|].
  destruct (has_opaque_path sb) eqn:Hop.
  - (* opaque base: the no scheme state copies scheme, path, query and goes to the fragment state *)
    destruct (V1 eq_refl) as (Vh & Vu & Vp & Vpo).
    eapply (runs_step_next shp (35 :: f) (Some sb) StNoScheme [] 35 f) with (st' := StFragment) (buf' := []);
      [reflexivity | |].
    + rewrite (step_unfold shp (35 :: f) (Some sb) _ [] (35 :: f)) by reflexivity. cbn zeta. cbn [hd_error].
      unfold st_no_scheme. rewrite Hop. cbn [cis andb negb]. replace (35 =? 35) with true by reflexivity.
      cbn [negb andb]. reflexivity.
    + pose proof (runs_fragment shp (35 :: f) (Some sb) f ([] ++ [35]) [] false false false
                    (set_fragment (set_query (set_path (set_scheme empty_url (su_scheme sb)) (su_path sb)) (su_query sb)) (Some []))
                    [] eq_refl eq_refl) as HR.
      cbn [app] in HR.
      replace (set_fragment sb (Some (upe in_fragment_set f)))
        with (set_fragment (set_fragment (set_query (set_path (set_scheme empty_url (su_scheme sb)) (su_path sb)) (su_query sb)) (Some []))
                           (Some (upe in_fragment_set f))); [exact HR|].
      destruct sb; cbn in *; subst; reflexivity.
  - destruct (list_eqb (su_scheme sb) str_file) eqn:Ef.
    + (* file base: file state *)
      apply list_eqb_spec in Ef. destruct (V2 Ef) as (Vu & Vp & Vpo).
      eapply (runs_step_stay shp (35 :: f) (Some sb) StNoScheme [] (35 :: f)) with (st' := StFile) (buf' := []);
        [reflexivity | discriminate | |].
      * rewrite (step_unfold shp (35 :: f) (Some sb) _ [] (35 :: f)) by reflexivity. cbn zeta. cbn [hd_error].
        unfold st_no_scheme. rewrite Hop, Ef, list_eqb_refl. cbn [cis andb negb]. reflexivity.
      * eapply (runs_step_next shp (35 :: f) (Some sb) StFile [] 35 f) with (st' := StFragment) (buf' := []);
          [reflexivity | |].
        -- rewrite (step_unfold shp (35 :: f) (Some sb) _ [] (35 :: f)) by reflexivity. cbn zeta. cbn [hd_error tl].
           unfold st_file, base_is_file. rewrite Ef, list_eqb_refl. cbn [cis orb].
           replace (35 =? 47) with false by reflexivity. replace (35 =? 92) with false by reflexivity.
           replace (35 =? 63) with false by reflexivity. replace (35 =? 35) with true by reflexivity.
           cbn [orb]. reflexivity.
        -- match goal with |- Runs _ _ _ (at_pos _ _ _ _ _ _ ?u1) _ =>
             pose proof (runs_fragment shp (35 :: f) (Some sb) f ([] ++ [35]) [] false false false u1 [] eq_refl eq_refl) as HR
           end.
           cbn [app] in HR.
           match type of HR with Runs _ _ _ _ (BDone ?x) =>
             replace (set_fragment sb (Some (upe in_fragment_set f))) with x; [exact HR|]
           end.
           destruct sb; cbn in *; subst; reflexivity.
    + (* any other base: relative state *)
      eapply (runs_step_stay shp (35 :: f) (Some sb) StNoScheme [] (35 :: f)) with (st' := StRelative) (buf' := []);
        [reflexivity | discriminate | |].
      * rewrite (step_unfold shp (35 :: f) (Some sb) _ [] (35 :: f)) by reflexivity. cbn zeta. cbn [hd_error].
        unfold st_no_scheme. rewrite Hop, Ef. cbn [cis andb negb]. reflexivity.
      * eapply (runs_step_next shp (35 :: f) (Some sb) StRelative [] 35 f) with (st' := StFragment) (buf' := []);
          [reflexivity | |].
        -- rewrite (step_unfold shp (35 :: f) (Some sb) _ [] (35 :: f)) by reflexivity. cbn zeta. cbn [hd_error tl].
           unfold st_relative. cbn [cis andb].
           replace (35 =? 47) with false by reflexivity. replace (35 =? 92) with false by reflexivity.
           replace (35 =? 63) with false by reflexivity. replace (35 =? 35) with true by reflexivity.
           rewrite andb_false_r. reflexivity.
        -- match goal with |- Runs _ _ _ (at_pos _ _ _ _ _ _ ?u1) _ =>
             pose proof (runs_fragment shp (35 :: f) (Some sb) f ([] ++ [35]) [] false false false u1 [] eq_refl eq_refl) as HR
           end.
           cbn [app] in HR.
           match type of HR with Runs _ _ _ _ (BDone ?x) =>
             replace (set_fragment sb (Some (upe in_fragment_set f))) with x; [exact HR|]
           end.
           destruct sb; reflexivity.
Qed.

(* "?query[#fragment]" against a base without opaque path *)
Definition ref_result (sb : spec_url) (q : list N) : spec_url :=
  set_fragment (set_query sb (Some (upe (qset_of sb) (before_hash q))))
               (option_map (upe in_fragment_set) (after_hash q)).

Theorem spec_query_only input sb q : spec_clean input = 63 :: q -> spec_valid sb ->
  has_opaque_path sb = false ->
  spec_basic_url_parse shp input (Some sb) = BDone (ref_result sb q).
Proof.
  intros Hc [V1 V2] Hop. apply spec_parse_of_runs. rewrite Hc.
  apply runs_no_scheme; [reflexivity|].
  destruct (list_eqb (su_scheme sb) str_file) eqn:Ef.
  - apply list_eqb_spec in Ef. destruct (V2 Ef) as (Vu & Vp & Vpo).
    eapply (runs_step_stay shp (63 :: q) (Some sb) StNoScheme [] (63 :: q)) with (st' := StFile) (buf' := []);
      [reflexivity | discriminate | |].
    + rewrite (step_unfold shp (63 :: q) (Some sb) _ [] (63 :: q)) by reflexivity. cbn zeta. cbn [hd_error].
      unfold st_no_scheme. rewrite Hop, Ef, list_eqb_refl. cbn [cis andb negb]. reflexivity.
    + eapply (runs_step_next shp (63 :: q) (Some sb) StFile [] 63 q) with (st' := StQuery) (buf' := []);
        [reflexivity | |].
      * rewrite (step_unfold shp (63 :: q) (Some sb) _ [] (63 :: q)) by reflexivity. cbn zeta. cbn [hd_error tl].
        unfold st_file, base_is_file. rewrite Ef, list_eqb_refl. cbn [cis orb].
        replace (63 =? 47) with false by reflexivity. replace (63 =? 92) with false by reflexivity.
        replace (63 =? 63) with true by reflexivity. cbn [orb]. reflexivity.
      * match goal with |- Runs _ _ _ (at_pos _ _ _ _ _ _ ?u1) _ =>
          pose proof (runs_query shp (63 :: q) (Some sb) q ([] ++ [63]) [] false false false u1 [] eq_refl eq_refl) as HR
        end.
        cbn [app] in HR.
        match type of HR with Runs _ _ _ _ (BDone ?x) => replace (ref_result sb q) with x; [exact HR|] end.
        unfold ref_result, query_final, qset_of, is_special. cbn [su_scheme set_query set_path set_host set_scheme app].
        rewrite Ef. destruct (after_hash q); destruct sb; cbn in *; subst; reflexivity.
  - eapply (runs_step_stay shp (63 :: q) (Some sb) StNoScheme [] (63 :: q)) with (st' := StRelative) (buf' := []);
      [reflexivity | discriminate | |].
    + rewrite (step_unfold shp (63 :: q) (Some sb) _ [] (63 :: q)) by reflexivity. cbn zeta. cbn [hd_error].
      unfold st_no_scheme. rewrite Hop, Ef. cbn [cis andb negb]. reflexivity.
    + eapply (runs_step_next shp (63 :: q) (Some sb) StRelative [] 63 q) with (st' := StQuery) (buf' := []);
        [reflexivity | |].
      * rewrite (step_unfold shp (63 :: q) (Some sb) _ [] (63 :: q)) by reflexivity. cbn zeta. cbn [hd_error tl].
        unfold st_relative. cbn [cis andb].
        replace (63 =? 47) with false by reflexivity. replace (63 =? 92) with false by reflexivity.
        replace (63 =? 63) with true by reflexivity. rewrite andb_false_r. reflexivity.
      * match goal with |- Runs _ _ _ (at_pos _ _ _ _ _ _ ?u1) _ =>
          pose proof (runs_query shp (63 :: q) (Some sb) q ([] ++ [63]) [] false false false u1 [] eq_refl eq_refl) as HR
        end.
        cbn [app] in HR.
        match type of HR with Runs _ _ _ _ (BDone ?x) => replace (ref_result sb q) with x; [exact HR|] end.
        unfold ref_result, query_final, qset_of, is_special. cbn [su_scheme set_query set_path set_host set_scheme
          set_port set_password set_username app].
        destruct (after_hash q); destruct sb; reflexivity.
Qed.

(* any reference without scheme that does not start with '#', against a base with an opaque path: failure *)
Theorem spec_opaque_base_fails input sb : spec_scheme (spec_clean input) = None ->
  starts_with_cp 35 (spec_clean input) = false -> has_opaque_path sb = true ->
  exists u, spec_basic_url_parse shp input (Some sb) = BFailure u.
Proof.
  intros Hs H35 Hop. eexists. apply spec_parse_of_runs.
  apply runs_no_scheme; [exact Hs|]. apply R_fail.
  rewrite (step_unfold shp (spec_clean input) (Some sb) _ [] (spec_clean input)) by reflexivity. cbn zeta.
  unfold st_no_scheme. rewrite Hop. cbn [andb].
  assert (cis (hd_error (spec_clean input)) 35 = false) as ->.
  { destruct (spec_clean input); [reflexivity | exact H35]. }
  reflexivity.
Qed.

End SpecRef.

(* closure of `related` under the two edits *)
Section Closure.
Variable dbg : bool.
Variable shs : spec_host -> list N.

Lemma get_hash_some F : q_trim (ftext (Some F)) = get_hash (set_fragment empty_url (Some F)).
Proof. destruct F as [|a r]; reflexivity. Qed.

Lemma before_fragment_len b : wf_b b = true -> nlen (b_before_fragment b) <= nlen (ser b).
Proof.
  intros W. unfold b_before_fragment. destruct (fragment_start b); [|lia].
  pose proof (nlen_nfirstn_le n (ser b)). unfold nlen, nfirstn in *. rewrite firstn_length. lia.
Qed.

Lemma before_fragment_pre b : agree_pre (nlen (b_before_fragment b)) (ser b) (b_before_fragment b).
Proof.
  unfold b_before_fragment. destruct (fragment_start b) as [f|]; [|reflexivity].
  unfold agree_pre. destruct (N.le_ge_cases f (nlen (ser b))) as [H|H].
  - rewrite nlen_nfirstn by exact H. apply nfirstn_nfirstn. lia.
  - rewrite !(nfirstn_all f) by exact H. reflexivity.
Qed.

(* positions in front of the end of the path *)
Lemma path_start_le_before_query b : wf_b b = true -> path_start b <= nlen (b_before_query b).
Proof.
  intros W. pose proof (wf_qf_facts b W) as QF. pose proof (qf_q QF) as Q1. pose proof (qf_f QF) as Q2.
  pose proof (path_start_le_len b W). unfold b_before_query.
  destruct (query_start b) as [q|]; [|destruct (fragment_start b) as [f|]]; try rewrite nlen_nfirstn; lia.
Qed.

Lemma before_query_le_before_fragment b : wf_b b = true ->
  nlen (b_before_query b) <= nlen (b_before_fragment b)
  /\ agree_pre (nlen (b_before_query b)) (b_before_fragment b) (b_before_query b).
Proof.
  intros W. pose proof (wf_qf_facts b W) as QF. pose proof (qf_q QF) as Q1. pose proof (qf_f QF) as Q2.
  pose proof (qf_qf QF) as Q3. unfold b_before_query, b_before_fragment, agree_pre.
  destruct (query_start b) as [q|]; destruct (fragment_start b) as [f|].
  - rewrite !nlen_nfirstn by lia. split; [lia|]. rewrite !nfirstn_nfirstn by lia. reflexivity.
  - rewrite !nlen_nfirstn by lia. split; [lia|]. rewrite !nfirstn_nfirstn by lia. reflexivity.
  - split; [lia | reflexivity].
  - split; [lia | reflexivity].
Qed.

(* A record b' that is b with another fragment (or none): same accessors in front of the fragment, serialization
   = b up to the fragment followed by the new one.  Both fragment setters produce such a record. *)
Lemma related_refragment b b' sb (F : option (list N)) :
  related dbg shs b sb -> wf_b b' = true -> same_front dbg b b' -> same_main b b' ->
  path b' = path b -> query dbg b' = query dbg b -> fragment dbg b' = Some F ->
  ser b' = b_before_fragment b ++ match F with Some x => 35 :: x | None => [] end ->
  b_before_fragment b' = b_before_fragment b -> b_before_query b' = b_before_query b ->
  related dbg shs b' (set_fragment sb F).
Proof.
  intros [W A Bf Bq Cb Sc V] W' SF SM Pth Qy Fr Es Ebf Ebq.
  destruct (accessors_reconcatenate dbg b W)
    as (sch & un & pw & hs & pth & q & f0 & Es1 & Eun & Epw & Ehs & Ept & Eq & Ef & _).
  pose proof (api_by_accessors dbg b W sch un pw hs pth q f0 Es1 Eun Epw Ehs Ept Eq Ef) as Ab.
  destruct SF as (S1 & S2 & S3 & S4 & S5).
  assert (api_of_model dbg b' = Some (api_of_parts (ser b') sch un pw hs (port b') pth q F)) as Ab'.
  { apply (api_by_accessors dbg _ W'); congruence. }
  rewrite A in Ab. unfold api_of_parts, spec_api_list in Ab.
  injection Ab as E1 E2 E3 E4 E5 E6 E7 E8 E9 E10.
  pose proof (before_fragment_len b W) as Lbf.
  pose proof (before_fragment_pre b) as Pbf.
  assert (agree_pre (nlen (b_before_fragment b)) (ser b) (ser b')) as Pre.
  { rewrite Es. unfold agree_pre. rewrite nfirstn_app_exact. symmetry.
    unfold agree_pre in Pbf. rewrite <- Pbf. apply nfirstn_all. lia. }
  destruct SM as (M1 & _).
  destruct (wf_scheme_facts b W) as (Hse1 & Hcolon & Hselt).
  pose proof (wf_se_lt_ps b W) as Hseps. pose proof (path_start_le_before_query b W) as Lps.
  destruct (before_query_le_before_fragment b W) as [Lbq _].
  constructor.
  - exact W'.
  - rewrite Ab'. f_equal. unfold api_of_parts, spec_api_list. rewrite S5.
    apply list10_eq; [ | symmetry; exact E2 | symmetry; exact E3 | symmetry; exact E4 | symmetry; exact E5 | symmetry; exact E6
       | symmetry; exact E7 | symmetry; exact E8 | symmetry; exact E9 | ].
    + rewrite Es, Bf. unfold get_href, serialize_url.
      cbn [su_scheme su_username su_password su_host su_port su_path su_query su_fragment set_fragment
           includes_credentials serialize_path].
      rewrite !app_nil_r. destruct F; rewrite <- ?app_assoc; reflexivity.
    + destruct F as [[|a r]|]; reflexivity.
  - rewrite Ebf. exact Bf.
  - rewrite Ebq. exact Bq.
  - (* cannot be a base: the byte behind "scheme:" is in front of the fragment, or is not '/' on either side *)
    transitivity (cannot_be_a_base b); [|exact Cb]. rewrite (cannot_be_a_base_eval _ W'), (cannot_be_a_base_eval _ W). do 2 f_equal.
    rewrite M1. unfold byte_eqb.
    destruct (N.ltb_spec (scheme_end b + 1) (nlen (b_before_fragment b))) as [Hlt|Hge].
    + rewrite (pre_nnth _ _ _ _ Pre Hlt). reflexivity.
    + assert (nlen (b_before_fragment b) = scheme_end b + 1) as El by lia.
      assert (match nnth (ser b') (scheme_end b + 1) with Some c => c =? 47 | None => false end = false) as ->.
      { rewrite Es. rewrite nnth_app_ge by lia. rewrite El, N.sub_diag. destruct F; reflexivity. }
      unfold b_before_fragment in El. destruct (fragment_start b) as [fi|] eqn:Efs.
      * pose proof (qf_f (wf_qf_facts b W)) as Q2. rewrite Efs in Q2. destruct Q2 as (Q2a & Q2b & Q2c).
        rewrite nlen_nfirstn in El by lia. subst fi. apply byte_eqb_nnth in Q2b. rewrite Q2b. reflexivity.
      * assert (nnth (ser b) (scheme_end b + 1) = None) as ->.
        { unfold nnth. apply nth_error_None. unfold nlen in El. lia. }
        reflexivity.
  - transitivity (b_scheme b); [|exact Sc]. unfold b_scheme. rewrite M1. apply (pre_firstn _ _ _ _ Pre). lia.
  - exact V.
Qed.

Theorem related_with_fragment b sb F : related dbg shs b sb ->
  related dbg shs (with_fragment b F) (set_fragment sb (Some F)).
Proof.
  intros R. pose proof (rel_wf _ _ _ _ R) as W.
  destruct (with_fragment_spec dbg b F W) as (W' & SF & SM & Pth & Qy & Fr & Es).
  apply (related_refragment b _ sb (Some F) R W' SF SM Pth Qy Fr Es).
  - unfold b_before_fragment, with_fragment, url_with. cbn [fragment_start ser]. apply nfirstn_app_exact.
  - unfold b_before_query at 1. unfold with_fragment, url_with. cbn [query_start fragment_start ser].
    destruct (before_query_le_before_fragment b W) as [Lbq Pbq].
    destruct (query_start b) as [qi|] eqn:Eqs.
    + unfold b_before_query in *. rewrite Eqs in *.
      pose proof (qf_q (wf_qf_facts b W)) as Q1. rewrite Eqs in Q1.
      rewrite nlen_nfirstn in Lbq by lia.
      rewrite nfirstn_app_le by lia. unfold agree_pre in Pbq. rewrite nlen_nfirstn in Pbq by lia.
      rewrite nfirstn_nfirstn in Pbq by lia. symmetry. exact Pbq.
    + rewrite nfirstn_app_exact. unfold b_before_query, b_before_fragment. rewrite Eqs.
      destruct (fragment_start b); reflexivity.
Qed.

Lemma before_query_pre b : wf_b b = true -> agree_pre (nlen (b_before_query b)) (ser b) (b_before_query b).
Proof.
  intros W. pose proof (before_fragment_pre b) as P1. destruct (before_query_le_before_fragment b W) as [L P2].
  eapply agree_pre_trans; [|exact P2]. eapply agree_pre_le; [exact P1 | exact L].
Qed.

(* the byte of the base at the end of "before the query": nothing, '?' or '#' *)
Lemma before_query_next b : wf_b b = true ->
  nnth (ser b) (nlen (b_before_query b)) = None \/ nnth (ser b) (nlen (b_before_query b)) = Some 63
  \/ nnth (ser b) (nlen (b_before_query b)) = Some 35.
Proof.
  intros W. pose proof (wf_qf_facts b W) as QF. pose proof (qf_q QF) as Q1. pose proof (qf_f QF) as Q2.
  unfold b_before_query. destruct (query_start b) as [q|]; [|destruct (fragment_start b) as [f|]].
  - destruct Q1 as (_ & Q & Hl). rewrite nlen_nfirstn by lia. right. left. apply byte_eqb_nnth. exact Q.
  - destruct Q2 as (_ & Q & Hl). rewrite nlen_nfirstn by lia. right. right. apply byte_eqb_nnth. exact Q.
  - left. unfold nnth. apply nth_error_None. unfold nlen. lia.
Qed.

Theorem related_with_query b sb Q F : related dbg shs b sb -> forallb no_h Q = true ->
  related dbg shs (with_query b Q F) (set_fragment (set_query sb (Some Q)) F).
Proof.
  intros [W A Bf Bq Cb Sc V] HQ.
  destruct (with_query_spec dbg (fun _ => Err EmptyHost) (fun _ => Err EmptyHost) b Q F W HQ) as (W' & SF & SM & Pth & Qy & Fr).
  assert (ser (with_query b Q F) = b_before_query b ++ 63 :: Q ++ qf_ftext F) as Es by reflexivity.
  destruct (accessors_reconcatenate dbg b W)
    as (sch & un & pw & hs & pth & q & f0 & Es1 & Eun & Epw & Ehs & Ept & Eq & Ef & _).
  pose proof (api_by_accessors dbg b W sch un pw hs pth q f0 Es1 Eun Epw Ehs Ept Eq Ef) as Ab.
  destruct SF as (S1 & S2 & S3 & S4 & S5).
  assert (api_of_model dbg (with_query b Q F)
          = Some (api_of_parts (ser (with_query b Q F)) sch un pw hs (port (with_query b Q F)) pth (Some Q) F)) as Ab'.
  { apply (api_by_accessors dbg _ W'); congruence. }
  rewrite A in Ab. unfold api_of_parts, spec_api_list in Ab.
  injection Ab as E1 E2 E3 E4 E5 E6 E7 E8 E9 E10.
  pose proof (before_query_pre b W) as Pbq.
  destruct (before_query_le_before_fragment b W) as [Lbq _].
  pose proof (before_fragment_len b W) as Lbf.
  assert (agree_pre (nlen (b_before_query b)) (ser b) (ser (with_query b Q F))) as Pre.
  { rewrite Es. unfold agree_pre. rewrite nfirstn_app_exact. symmetry.
    unfold agree_pre in Pbq. rewrite <- Pbq. apply nfirstn_all. lia. }
  destruct SM as (M1 & M2 & M3 & M4 & M5 & M6 & M7).
  pose proof (path_start_le_before_query b W) as Lps.
  destruct (wf_scheme_facts b W) as (Hse1 & Hcolon & Hselt).
  pose proof (wf_se_lt_ps b W) as Hseps.
  constructor.
  - exact W'.
  - rewrite Ab'. f_equal. unfold api_of_parts, spec_api_list. rewrite S5.
    apply list10_eq; [ | symmetry; exact E2 | symmetry; exact E3 | symmetry; exact E4 | symmetry; exact E5
                       | symmetry; exact E6 | symmetry; exact E7 | symmetry; exact E8 | | ].
    + rewrite Es, Bq. unfold get_href, serialize_url.
      cbn [su_scheme su_username su_password su_host su_port su_path su_query su_fragment set_fragment set_query
           includes_credentials serialize_path].
      rewrite !app_nil_r. rewrite <- !app_assoc. destruct F; reflexivity.
    + destruct Q as [|a r]; reflexivity.
    + destruct F as [[|a r]|]; reflexivity.
  - (* before the fragment *)
    transitivity (b_before_query b ++ 63 :: Q).
    + unfold b_before_fragment, with_query, url_with. cbn [fragment_start ser]. destruct F as [x|]; cbn [qf_ftext].
      * replace (nlen (b_before_query b) + 1 + nlen Q) with (nlen (b_before_query b ++ 63 :: Q))
          by (rewrite nlen_app, nlen_cons; lia).
        replace (b_before_query b ++ 63 :: Q ++ 35 :: x) with ((b_before_query b ++ 63 :: Q) ++ 35 :: x)
          by (rewrite <- app_assoc; reflexivity).
        apply nfirstn_app_exact.
      * rewrite app_nil_r. reflexivity.
    + rewrite Bq. unfold serialize_url.
      cbn [su_scheme su_username su_password su_host su_port su_path su_query su_fragment set_fragment set_query
           includes_credentials serialize_path].
      rewrite !app_nil_r. rewrite <- !app_assoc. reflexivity.
  - (* before the query *)
    transitivity (b_before_query b); [|exact Bq].
    unfold b_before_query at 1. unfold with_query, url_with. cbn [query_start fragment_start ser].
    apply nfirstn_app_exact.
  - (* cannot be a base *)
    transitivity (cannot_be_a_base b); [|exact Cb].
    rewrite (cannot_be_a_base_eval _ W'), (cannot_be_a_base_eval _ W). do 2 f_equal.
    rewrite M1. unfold byte_eqb.
    destruct (N.ltb_spec (scheme_end b + 1) (nlen (b_before_query b))) as [Hlt|Hge].
    + rewrite (pre_nnth _ _ _ _ Pre Hlt). reflexivity.
    + assert (nlen (b_before_query b) = scheme_end b + 1) as El by lia.
      rewrite Es. rewrite nnth_app_ge by lia. rewrite El, N.sub_diag. cbn [nnth nth_error N.to_nat].
      rewrite <- El. destruct (before_query_next b W) as [K|[K|K]]; rewrite K; reflexivity.
  - (* scheme *)
    transitivity (b_scheme b); [|exact Sc]. unfold b_scheme. rewrite M1. apply (pre_firstn _ _ _ _ Pre). lia.
  - destruct V as [V1 V2]. split; [exact V1 | exact V2].
Qed.

(* parse results of the opaque class are related to the Standard's *)
Theorem related_opaque sch P q f : opaque_ok sch P q f ->
  related dbg shs (opaque_url sch P q f) (spec_opaque_url sch P q f).
Proof.
  intros K. pose proof (opaque_url_wf _ _ _ _ K) as W.
  set (A := sch ++ [58]).
  constructor.
  - exact W.
  - apply api_opaque. exact K.
  - unfold b_before_fragment, opaque_url, serialize_url, spec_opaque_url, opaque_ser, opaque_pre.
    cbn [fragment_start ser su_scheme su_username su_password su_host su_port su_path su_query su_fragment serialize_path].
    fold A. rewrite app_nil_r. unfold qf_text.
    destruct f as [y|]; cbn [qf_fs qf_ftext].
    + replace (nlen (A ++ P) + nlen (qf_qtext q)) with (nlen ((A ++ P) ++ qf_qtext q)) by apply nlen_app.
      rewrite app_assoc, nfirstn_app_exact. unfold A. rewrite <- !app_assoc. destruct q; reflexivity.
    + rewrite app_nil_r. unfold A. rewrite <- !app_assoc. destruct q; reflexivity.
  - unfold b_before_query, opaque_url, serialize_url, spec_opaque_url, opaque_ser, opaque_pre.
    cbn [query_start fragment_start ser su_scheme su_username su_password su_host su_port su_path su_query
         su_fragment serialize_path set_query].
    fold A. rewrite !app_nil_r. unfold qf_text.
    destruct q as [x|]; destruct f as [y|]; cbn [qf_qs qf_fs qf_qtext qf_ftext].
    + rewrite nfirstn_app_exact. unfold A. rewrite <- !app_assoc. reflexivity.
    + rewrite nfirstn_app_exact. unfold A. rewrite <- !app_assoc. reflexivity.
    + cbn [app]. replace (nlen (A ++ P) + nlen (@nil N)) with (nlen (A ++ P)) by (unfold nlen at 3; cbn [length]; lia).
      rewrite nfirstn_app_exact. unfold A. rewrite <- !app_assoc. reflexivity.
    + cbn [app]. rewrite app_nil_r. unfold A. rewrite <- !app_assoc. reflexivity.
  - apply opaque_url_cbb. exact K.
  - unfold b_scheme, opaque_url, opaque_ser, opaque_pre. cbn [scheme_end ser]. rewrite <- !app_assoc.
    apply nfirstn_app_exact.
  - split; intros _; cbn; repeat split; reflexivity.
Qed.

End Closure.

(* class "fragment only": the cleaned reference starts with '#' *)
Section FragmentOnly.
Variable dbg : bool.
Variable hp hpo : list N -> result host.
Variable hd : host -> list N.
Variable shp : bool -> list N -> option spec_host.
Variable shs : spec_host -> list N.

Theorem eq_fragment_only input b sb f : usv_list input -> related dbg shs b sb ->
  spec_clean input = 35 :: f ->
  exists su', spec_basic_url_parse shp input (Some sb) = BDone su'
    /\ (parse_url dbg hp hpo hd None (Some b) input = PErr Overflow
        \/ exists u', parse_url dbg hp hpo hd None (Some b) input = POk u' /\ related dbg shs u' su').
Proof.
  intros Hu R Hc. eexists. split; [exact (spec_fragment_only shp input sb f Hc (rel_valid _ _ _ _ R))|].
  assert (ref_text input = 35 :: f) as Hr.
  { rewrite ref_text_eq, <- spec_clean_is_ntnl_trim. exact Hc. }
  rewrite (join_frag_eq dbg hp hpo hd b input f Hu Hr).
  unfold to_u32. destruct (nlen (b_before_fragment b) <=? U32_MAX_P); cbn [pbind]; [|left; reflexivity].
  right. eexists. split; [reflexivity|].
  unfold upe. rewrite <- (enc_bridge T_FRAGMENT in_fragment_set f rel_FRAGMENT).
  apply related_with_fragment. exact R.
Qed.

End FragmentOnly.

(* class "query only": the cleaned reference starts with '?' *)
Section QueryOnly.
Variable dbg : bool.
Variable hp hpo : list N -> result host.
Variable hd : host -> list N.
Variable shp : bool -> list N -> option spec_host.
Variable shs : spec_host -> list N.

Lemma before_hash_same q : C08_Simple.before_hash q = before_hash q.
Proof. induction q as [|c r IH]; [reflexivity|]. cbn. rewrite IH. reflexivity. Qed.
Lemma after_hash_same q : C08_Simple.after_hash q = after_hash q.
Proof. induction q as [|c r IH]; [reflexivity|]. cbn. rewrite IH. reflexivity. Qed.

(* the model on "?q": Overflow, or the base with its query and fragment replaced *)
Lemma model_query_only b input q : wf_b b = true -> cannot_be_a_base b = Some false ->
  usv_list input -> ref_text input = 63 :: q ->
  parse_url dbg hp hpo hd None (Some b) input = PErr Overflow
  \/ (parse_url dbg hp hpo hd None (Some b) input = POk (with_query b (ref_query (b_st b) q) (ref_fragment q))
      /\ forallb no_h (ref_query (b_st b) q) = true).
Proof.
  intros W Hc Hu He.
  destruct (parse_url dbg hp hpo hd None (Some b) input) as [u'|e|] eqn:E.
  - right. destruct (join_query dbg hp hpo hd b input q u' W Hc Hu He E) as [-> K]. split; [reflexivity | exact K].
  - left. f_equal. revert E.
    unfold parse_url. set (l := input_new_trim_c0 input). change (ntnl l = 63 :: q) in He.
    rewrite parse_scheme_first_not_alpha by (rewrite He; reflexivity).
    destruct (inp_next_some l 63 q He) as (r & En & Er & Et).
    unfold inp_starts_with_char. rewrite En. cbn [N.eqb Pos.eqb]. rewrite Hc.
    assert (forall st se s, parse_query_and_fragment None CUrlParser st se s l = PErr Overflow
                            \/ exists x, parse_query_and_fragment None CUrlParser st se s l = POk x) as Tot.
    { intros st se s. unfold parse_query_and_fragment. rewrite En. cbn [N.eqb Pos.eqb].
      unfold to_u32. destruct (nlen s <=? U32_MAX_P); cbn [pbind]; [|left; reflexivity].
      destruct (parse_query _ _ _ _ _ _) as [s1 [r2|]]; [|right; eexists; reflexivity].
      destruct (nlen s1 <=? U32_MAX_P); cbn [pbind]; [right; eexists; reflexivity | left; reflexivity]. }
    destruct (st_is_file (scheme_type_of (b_scheme b))).
    + unfold parse_file, inp_split_first. rewrite En. cbn [is_slash_or_bslash N.eqb Pos.eqb orb].
      destruct (Tot (scheme_type_of (b_scheme b)) (scheme_end b) (b_before_query b)) as [K|[[[s qs] fs] K]];
        rewrite K; cbn [pbind]; intros H; [inversion H; reflexivity | discriminate].
    + unfold parse_relative, inp_split_first. rewrite En. cbn [N.eqb Pos.eqb].
      destruct (Tot (scheme_type_of (b_scheme b)) (scheme_end b) (b_before_query b)) as [K|[[[s qs] fs] K]];
        rewrite K; cbn [pbind]; intros H; [inversion H; reflexivity | discriminate].
  - exfalso. revert E.
    unfold parse_url. set (l := input_new_trim_c0 input). change (ntnl l = 63 :: q) in He.
    rewrite parse_scheme_first_not_alpha by (rewrite He; reflexivity).
    destruct (inp_next_some l 63 q He) as (r & En & Er & Et).
    unfold inp_starts_with_char. rewrite En. cbn [N.eqb Pos.eqb]. rewrite Hc.
    assert (forall st se s, parse_query_and_fragment None CUrlParser st se s l = PErr Overflow
                            \/ exists x, parse_query_and_fragment None CUrlParser st se s l = POk x) as Tot.
    { intros st se s. unfold parse_query_and_fragment. rewrite En. cbn [N.eqb Pos.eqb].
      unfold to_u32. destruct (nlen s <=? U32_MAX_P); cbn [pbind]; [|left; reflexivity].
      destruct (parse_query _ _ _ _ _ _) as [s1 [r2|]]; [|right; eexists; reflexivity].
      destruct (nlen s1 <=? U32_MAX_P); cbn [pbind]; [right; eexists; reflexivity | left; reflexivity]. }
    destruct (st_is_file (scheme_type_of (b_scheme b))).
    + unfold parse_file, inp_split_first. rewrite En. cbn [is_slash_or_bslash N.eqb Pos.eqb orb].
      destruct (Tot (scheme_type_of (b_scheme b)) (scheme_end b) (b_before_query b)) as [K|[[[s qs] fs] K]];
        rewrite K; cbn [pbind]; intros H; discriminate.
    + unfold parse_relative, inp_split_first. rewrite En. cbn [N.eqb Pos.eqb].
      destruct (Tot (scheme_type_of (b_scheme b)) (scheme_end b) (b_before_query b)) as [K|[[[s qs] fs] K]];
        rewrite K; cbn [pbind]; intros H; discriminate.
Qed.

Theorem eq_query_only input b sb q : usv_list input -> related dbg shs b sb ->
  has_opaque_path sb = false -> spec_clean input = 63 :: q ->
  exists su', spec_basic_url_parse shp input (Some sb) = BDone su'
    /\ (parse_url dbg hp hpo hd None (Some b) input = PErr Overflow
        \/ exists u', parse_url dbg hp hpo hd None (Some b) input = POk u' /\ related dbg shs u' su').
Proof.
  intros Hu R Hop Hc. eexists.
  split; [exact (spec_query_only shp input sb q Hc (rel_valid _ _ _ _ R) Hop)|].
  assert (ref_text input = 63 :: q) as Hr.
  { rewrite ref_text_eq, <- spec_clean_is_ntnl_trim. exact Hc. }
  assert (cannot_be_a_base b = Some false) as Hcb by (rewrite (rel_cbb _ _ _ _ R), Hop; reflexivity).
  destruct (model_query_only b input q (rel_wf _ _ _ _ R) Hcb Hu Hr) as [E|[E K]]; [left; exact E|].
  right. eexists. split; [exact E|].
  assert (ref_query (b_st b) q = upe (qset_of sb) (before_hash q)) as EQ.
  { unfold ref_query, b_st, qset_of, is_special, query_set. rewrite (rel_sch _ _ _ _ R).
    rewrite special_schemes_are_the_standards, before_hash_same.
    destruct (is_special_scheme (su_scheme sb)); apply enc_bridge; [exact rel_SPECIAL_QUERY | exact rel_QUERY]. }
  assert (ref_fragment q = option_map (upe in_fragment_set) (after_hash q)) as EF.
  { unfold ref_fragment. rewrite after_hash_same. destruct (after_hash q) as [x|]; [|reflexivity].
    cbn [option_map]. f_equal. apply enc_bridge. exact rel_FRAGMENT. }
  unfold ref_result. rewrite <- EQ, <- EF. apply related_with_query; [exact R | exact K].
Qed.

(* a reference without scheme, not starting with '#', against a base that cannot be a base: both fail *)
Theorem eq_opaque_base_fails input b sb : related dbg shs b sb -> has_opaque_path sb = true ->
  spec_scheme (spec_clean input) = None -> starts_with_cp 35 (spec_clean input) = false ->
  (exists u, spec_basic_url_parse shp input (Some sb) = BFailure u)
  /\ parse_url dbg hp hpo hd None (Some b) input = PErr RelativeUrlWithCannotBeABaseBase.
Proof.
  intros R Hop Hs H35. split; [exact (spec_opaque_base_fails shp input sb Hs H35 Hop)|].
  rewrite spec_clean_is_ntnl_trim in Hs, H35.
  unfold parse_url. set (l := input_new_trim_c0 input) in *.
  pose proof (scheme_state_eq l) as K. rewrite Hs in K.
  destruct (parse_scheme CUrlParser l) as [[s r]|]; [contradiction|].
  assert (inp_starts_with_char 35 l = false) as ->.
  { unfold inp_starts_with_char. destruct (inp_next l) as [[c r]|] eqn:En; [|reflexivity].
    destruct (inp_next_ntnl l c r En) as [E _]. rewrite E in H35. exact H35. }
  rewrite (rel_cbb _ _ _ _ R), Hop. reflexivity.
Qed.

End QueryOnly.
