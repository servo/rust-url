(* Proofs/C02_SetQF.v - L2 for the two "tail" setters, on the common shape of every canonical record:
      ser = pre ++ ["?" q] ++ ["#" f],  query_start / fragment_start = the sums of the lengths.
   set_fragment and set_query computed on that shape: the result has the same shape with the new component
   replaced by the parser's encoding of the argument. *)
From RU Require Import Base.Prelude Base.Utf8 Base.Utf8Facts Model.AsciiSet Gen.Tables
  Model.PercentEncoding Model.HostT Model.UrlRecord Model.Parser Model.Setters Model.WF
  Proofs.ListN Proofs.C14_Set Proofs.C14_Enc Proofs.C02_Enc Proofs.C02_Parts Proofs.C02_Opaque.
Open Scope N_scope.
Open Scope list_scope.

Definition qf_url (pre : list N) (se ue hs he : N) (hi : host_internal) (pt : option N) (ps : N)
           (q f : option (list N)) : url :=
  mkUrl (pre ++ qf_text q f) se ue hs he hi pt ps (qf_qs (nlen pre) q) (qf_fs (nlen pre) q f).

(* the text set_query stores: the query state in the setter context ('#' is encoded, not a stop) *)
Definition squery_of (st : scheme_type) (l : list N) : list N :=
  encode (query_set st) (utf8_encode (query_chars false (input_new_trim_tnl l))).

Lemma squery_of_clean st l : usv_list l -> clean (query_set st) (squery_of st l) = true.
Proof.
  intros H. apply encode_is_clean; [apply stable_query_set|].
  apply utf8_encode_bytes. apply usv_query_chars. apply usv_trim. exact H.
Qed.

Section SetQF.
Variable dbg : bool.

Lemma dbg_byte_is_app a c b u : ser u = a ++ c :: b -> dbg_byte_is dbg u (nlen a) c = Some tt.
Proof.
  intros E. unfold dbg_byte_is. destruct dbg; [|reflexivity].
  unfold byte_is, byte_at. rewrite E.
  pose proof (byte_eqb_app a c b) as H. unfold byte_eqb in H.
  destruct (nnth (a ++ c :: b) (nlen a)) as [x|]; [|discriminate]. cbn [bindo]. rewrite H. reflexivity.
Qed.

Variables (pre : list N) (se ue hs he : N) (hi : host_internal) (pt : option N) (ps : N).
Notation U := (qf_url pre se ue hs he hi pt ps).

Lemma qf_text_none q : qf_text q None = qf_qtext q.
Proof. unfold qf_text. cbn [qf_ftext]. apply app_nil_r. Qed.

(* the serialization up to the fragment *)
Lemma cut_fragment_qf q f :
  (match fragment_start (U q f) with
   | Some start => dbg_byte_is dbg (U q f) start 35 ;;; Some (truncate (ser (U q f)) start)
   | None => Some (ser (U q f))
   end) = Some (pre ++ qf_qtext q).
Proof.
  unfold qf_url. cbn [fragment_start ser]. destruct f as [y|]; cbn [qf_fs].
  - rewrite <- nlen_app.
    rewrite (dbg_byte_is_app (pre ++ qf_qtext q) 35 y) by (cbn [ser]; unfold qf_text; cbn [qf_ftext]; rewrite app_assoc; reflexivity).
    cbn [bindo]. unfold truncate, qf_text. cbn [qf_ftext]. rewrite app_assoc. rewrite nfirstn_app_len. reflexivity.
  - rewrite qf_text_none. reflexivity.
Qed.

(* set_fragment *)
Theorem set_fragment_qf_some q f input : usv_list input ->
  set_fragment dbg (U q f) (Some input) = Some (U q (Some (frag_of input))).
Proof.
  intros Hu. unfold set_fragment. rewrite cut_fragment_qf. cbn [bindo].
  rewrite parse_fragment_spec by exact Hu.
  unfold qf_url, set_fragment_start, set_ser. cbn [ser scheme_end username_end host_start host_end hosti port path_start query_start fragment_start].
  unfold qf_text. cbn [qf_ftext qf_fs]. rewrite nlen_app. rewrite <- !app_assoc. reflexivity.
Qed.

Definition rstrip32 (l : list N) : list N := rev (drop_while (fun c => c =? 32) (rev l)).

Lemma U_none_none : U None None = mkUrl pre se ue hs he hi pt ps None None.
Proof. unfold qf_url. cbn [qf_text qf_qtext qf_ftext qf_qs qf_fs app]. rewrite app_nil_r. reflexivity. Qed.

(* strip_trailing_spaces_from_opaque_path on a record without fragment *)
Lemma strip_qf q c : cannot_be_a_base (U q None) = Some c ->
  strip_trailing_spaces_from_opaque_path (U q None)
  = Some (if c && match q with None => true | Some _ => false end
          then qf_url (rstrip32 pre) se ue hs he hi pt ps None None else U q None).
Proof.
  intros Hc. unfold strip_trailing_spaces_from_opaque_path. rewrite Hc. cbn [bindo].
  destruct c; cbn [negb andb]; [|reflexivity].
  destruct q as [x|]; [reflexivity|].
  rewrite U_none_none. cbn [fragment_start query_start set_ser ser scheme_end username_end host_start host_end hosti port path_start].
  unfold qf_url. cbn [qf_text qf_qtext qf_ftext qf_qs qf_fs app]. rewrite app_nil_r. reflexivity.
Qed.

Theorem set_fragment_qf_none q f c : cannot_be_a_base (U q None) = Some c ->
  set_fragment dbg (U q f) None
  = Some (if c && match q with None => true | Some _ => false end
          then qf_url (rstrip32 pre) se ue hs he hi pt ps None None else U q None).
Proof.
  intros Hc. unfold set_fragment. rewrite cut_fragment_qf. cbn [bindo].
  assert (set_fragment_start (set_ser (U q f) (pre ++ qf_qtext q)) None = U q None) as E.
  { unfold qf_url, set_fragment_start, set_ser. cbn [ser scheme_end username_end host_start host_end hosti port path_start query_start fragment_start].
    rewrite qf_text_none. reflexivity. }
  rewrite E. exact (strip_qf q c Hc).
Qed.

(* set_query *)
Lemma take_fragment_qf q f : take_fragment dbg (U q f) = Some (U q None, f).
Proof.
  unfold take_fragment, qf_url. cbn [fragment_start ser]. destruct f as [y|]; cbn [qf_fs].
  - rewrite <- nlen_app.
    assert (pre ++ qf_text q (Some y) = (pre ++ qf_qtext q) ++ 35 :: y) as E
      by (unfold qf_text; cbn [qf_ftext]; rewrite app_assoc; reflexivity).
    rewrite (dbg_byte_is_app (pre ++ qf_qtext q) 35 y) by exact E. cbn [bindo].
    unfold u_slice_from, slice_from_o. cbn [ser]. rewrite E.
    replace (nlen (pre ++ qf_qtext q) + 1 <=? nlen ((pre ++ qf_qtext q) ++ 35 :: y)) with true
      by (symmetry; apply N.leb_le; rewrite (nlen_app _ (35 :: y)), nlen_cons; lia).
    cbn [bindo]. unfold truncate. rewrite nfirstn_app_len.
    replace (nskipn (nlen (pre ++ qf_qtext q) + 1) ((pre ++ qf_qtext q) ++ 35 :: y)) with y.
    2:{ rewrite nskipn_app_add. reflexivity. }
    unfold set_fragment_start, set_ser. cbn [ser scheme_end username_end host_start host_end hosti port path_start query_start fragment_start].
    rewrite qf_text_none. reflexivity.
  - reflexivity.
Qed.

Lemma cut_query_qf q :
  (match query_start (U q None) with
   | Some start => dbg_byte_is dbg (U q None) start 63 ;;;
                   Some (set_query_start (set_ser (U q None) (truncate (ser (U q None)) start)) None)
   | None => Some (U q None)
   end) = Some (U None None).
Proof.
  destruct q as [x|]; [|reflexivity].
  unfold qf_url at 1. cbn [query_start qf_qs].
  assert (ser (U (Some x) None) = pre ++ 63 :: x) as E
    by (unfold qf_url; cbn [ser]; rewrite qf_text_none; reflexivity).
  rewrite (dbg_byte_is_app pre 63 x) by exact E. cbn [bindo]. rewrite E.
  unfold truncate. rewrite nfirstn_app_len. rewrite U_none_none.
  unfold qf_url, set_query_start, set_ser. cbn [ser scheme_end username_end host_start host_end hosti port path_start query_start fragment_start].
  reflexivity.
Qed.

Lemma restore_fragment_qf q f :
  restore_already_parsed_fragment (U q None) f = Some (U q f).
Proof.
  unfold restore_already_parsed_fragment. destruct f as [y|]; [|reflexivity].
  unfold qf_url at 1. cbn [fragment_start qf_fs assert_o bindo ser].
  unfold qf_url, set_fragment_start, set_ser. cbn [ser scheme_end username_end host_start host_end hosti port path_start query_start fragment_start].
  rewrite qf_text_none. unfold qf_text. cbn [qf_ftext qf_fs]. rewrite nlen_app, <- !app_assoc. reflexivity.
Qed.

(* the scheme is the first scheme_end bytes of pre *)
Variable sch : list N.
Hypothesis Hsch : nfirstn se pre = sch.
Hypothesis Hse : se <= nlen pre.

Lemma u_scheme_type_qf : u_scheme_type (U None None) = Some (scheme_type_of sch).
Proof.
  unfold u_scheme_type, scheme, u_slice_to, slice_to_o. rewrite U_none_none. cbn [ser scheme_end].
  replace (se <=? nlen pre) with true by (symmetry; apply N.leb_le; exact Hse). cbn [bindo]. rewrite Hsch. reflexivity.
Qed.

Theorem set_query_qf_some q f input : usv_list input ->
  set_query dbg (U q f) (Some input) = Some (U (Some (squery_of (scheme_type_of sch) input)) f).
Proof.
  intros Hu. unfold set_query. rewrite take_fragment_qf. cbn [bindo]. rewrite cut_query_qf. cbn [bindo].
  rewrite u_scheme_type_qf. cbn [bindo].
  assert (ser (U None None) = pre) as Es by (rewrite U_none_none; reflexivity).
  assert (scheme_end (U None None) = se) as Ee by reflexivity.
  rewrite Es, Ee. unfold parse_query. cbn [query_enc ctx_eqb].
  rewrite parse_query_loop_spec; [|constructor | apply usv_trim; exact Hu]. cbn [rev app].
  assert (set_query_start (set_ser (U None None) ((pre ++ [63]) ++ encode (query_set (scheme_type_of sch))
             (utf8_encode (query_chars false (input_new_trim_tnl input))))) (Some (nlen pre))
          = U (Some (squery_of (scheme_type_of sch) input)) None) as E.
  { rewrite U_none_none. unfold qf_url, set_query_start, set_ser.
    cbn [ser scheme_end username_end host_start host_end hosti port path_start query_start fragment_start].
    rewrite qf_text_none. cbn [qf_qtext qf_qs qf_fs]. unfold squery_of. rewrite <- app_assoc. reflexivity. }
  rewrite E. apply restore_fragment_qf.
Qed.

Theorem set_query_qf_none q f c : cannot_be_a_base (U None None) = Some c ->
  set_query dbg (U q f) None
  = Some (if c && match f with None => true | Some _ => false end
          then qf_url (rstrip32 pre) se ue hs he hi pt ps None None else U None f).
Proof.
  intros Hc. unfold set_query. rewrite take_fragment_qf. cbn [bindo]. rewrite cut_query_qf. cbn [bindo].
  destruct f as [y|].
  - cbn [bindo]. rewrite andb_false_r. apply restore_fragment_qf.
  - rewrite (strip_qf None c Hc). cbn [bindo]. rewrite andb_true_r. destruct c; reflexivity.
Qed.

End SetQF.
