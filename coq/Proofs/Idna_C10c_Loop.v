(* Proofs/Idna_C10c_Loop.v - the accepted fail-fast run of process_inner as a whole: the name is a run of pass-through
   labels (text `ptext pl`, length passthrough_up_to) followed by the labels that were processed; domain_buffer is the
   dot-joined list DBL of its labels, every one paired (PairOK of Proofs/Idna_C10c_Drun.v) with its already_punycode
   entry; the bidi flag is is_bidi of the buffer, and when it is set every label passed the bidi rule.  This is
   theorem drun, the last of the file; the label-level lemmas are in Proofs/Idna_C10c_Drun.v. *)
From RU Require Import Base.Prelude Base.Utf8 Base.U32_c13 Gen.Tables Model.Punycode Model.Uts46
  Proofs.Idna_Sim Proofs.Idna_Api Proofs.Idna_Known Proofs.Idna_Hyp Proofs.Idna_Redisc
  Proofs.Idna_C10_Deny Proofs.Idna_C10_Prefix Proofs.Idna_C10_Inner Proofs.Idna_C10_Walk
  Proofs.Idna_C10b_AsciiInner Proofs.Idna_C10b_Stmt Proofs.Idna_WalkEnc
  Proofs.Idna_C10c_Start Proofs.Idna_C10c_Drun Proofs.Idna_Mark.

Definition PassL (l : list N) : Prop := bytes l /\ is_passthrough_ascii_label l = true.
Definition ptext (pl : list (list N)) : list N := match pl with [] => [] | _ => join_dots pl ++ [DOT] end.

Lemma ptext_join pl done : done <> [] -> join_dots (pl ++ done) = ptext pl ++ join_dots done.
Proof.
  intros Hd. destruct pl as [|x xs]; [reflexivity|]. unfold ptext. rewrite join_dots_app by (try discriminate; exact Hd).
  rewrite <- app_assoc. reflexivity.
Qed.

Section BidiAll.
Variable A : adapter.
Lemma bidi_labels_all labels : forall he ls he', bidi_labels A true labels he = SOk (ls, he') ->
  he' = he /\ Forall (fun l => bidi_label A true l he = SOk (l, he)) labels.
Proof.
  induction labels as [|l r IH]; intros he ls he' H; cbn [bidi_labels] in H.
  - inversion H. split; [reflexivity|constructor].
  - apply sbind_ok in H. destruct H as ([l1 h1] & H1 & H). pose proof H1 as H1'. apply bidi_label_true in H1. destruct H1 as [-> ->].
    apply sbind_ok in H. destruct H as ([r1 h2] & H2 & H). destruct (IH _ _ _ H2) as [-> HF]. inversion H. subst.
    split; [reflexivity|]. constructor; assumption.
Qed.
Lemma bidi_labels_ok labels : Forall (fun l => bidi_label A true l false = SOk (l, false)) labels ->
  bidi_labels A true labels false = SOk (labels, false).
Proof.
  induction 1 as [|l r Hl _ IH]; cbn [bidi_labels]; [reflexivity|]. rewrite Hl. cbn [sbind]. rewrite IH. reflexivity.
Qed.
End BidiAll.

Section Loop.
Variable A : adapter.
Variable cfg : bool.
Variable deny : N.
Variable hy : hyphens.
Hypothesis HU : DenyUpper deny.
Hypothesis HL : LdhFree deny.
Hypothesis HOK : AdapterOK A.
Hypothesis HUSV : AdapterUSV A.
Hypothesis HNT : NvNoTrunc A.
Hypothesis HNI : NvIdem A.
Hypothesis HNM : AsciiNoMark A.
Hypothesis HMP : MapPrefix A.

Notation PairOK := (PairOK A cfg deny hy).

Lemma pairok_nodot dbl e : PairOK dbl e -> nodot dbl.
Proof.
  intros H. destruct H as [m Han Hn Hacc|m dec dbl Ha Hn Hp Hc Hd Hapd Hchk Hna|dbl Hnv Hg Hchk Hu Hpre].
  - unfold cmap. apply map_upper_nodot. exact Hn.
  - destruct (apd_inv A deny _ _ _ Hapd) as (_ & _ & Hg & _). exact (gc_all_nodot deny dbl Hg).
  - exact (gc_all_nodot deny dbl Hg).
Qed.
Lemma pairok_all_nodot DBL ap : Forall2 PairOK DBL ap -> Forall nodot DBL.
Proof. induction 1 as [|x y xs ys H _ IH]; constructor; [exact (pairok_nodot x y H)|exact IH]. Qed.

Lemma pairok_empty : PairOK [] (MixedCaseAscii []).
Proof.
  apply (pk_ascii A cfg deny hy []).
  - split; [constructor|reflexivity].
  - constructor.
  - unfold lab_acc, cmap. cbn [map existsb negb andb]. destruct hy; reflexivity.
Qed.

(* DInv all s todo: the invariant of the fail-fast label loop over the labels `all` of the name, at state s with the
   labels todo still to come; no error so far.  pl = the leading labels that were passed through.  While the loop
   is inside that prefix (i_inpre s) nothing has been written and all = pl ++ todo.  Afterwards all = pl ++ done ++ todo
   with done the labels processed, passthrough_up_to = len (ptext pl), and domain_buffer = join_dots DBL with every
   label of DBL paired (PairOK) with its already_punycode entry *)
Definition DInv (all : list (list N)) (s : ist) (todo : list (list N)) : Prop :=
  i_he s = false /\ exists pl, Forall PassL pl /\
    if i_inpre s then
      i_db s = [] /\ i_ap s = [] /\ all = pl ++ todo /\ i_ptu s = len (join_dots pl) /\
      i_seen s = negb (match pl with [] => true | _ => false end)
    else
      i_seen s = true /\ i_ptu s = len (ptext pl) /\ exists done DBL, done <> [] /\ all = pl ++ done ++ todo /\
        DBL <> [] /\ i_db s = join_dots DBL /\ Forall2 PairOK DBL (i_ap s).

Lemma label_step_DInv all label s s' todo : bytes label -> nodot label -> DInv all s (label :: todo) ->
  label_step A cfg true hy deny label s = SOk s' -> DInv all s' todo.
Proof.
  intros Hb Hnd (Hhe & pl & Hpl & HH) H. unfold label_step in H.
  destruct (i_inpre s) eqn:Ein.
  - destruct HH as (Hdb & Hap & Hall & Hptu & Hseen). cbn [andb] in H.
    destruct (is_passthrough_ascii_label label) eqn:Ep.
    + inversion H. clear H. subst s'. split; [exact Hhe|]. exists (pl ++ [label]).
      split; [apply Forall_app; split; [exact Hpl|constructor; [split; assumption|constructor]]|].
      cbn [i_inpre i_db i_ap i_ptu i_seen]. repeat split; try assumption.
      * rewrite <- app_assoc. exact Hall.
      * rewrite Hptu, Hseen. destruct pl as [|x xs]; [cbn [negb app join_dots]; unfold len at 1; cbn [length]; lia|].
        cbn [negb]. rewrite join_dots_snoc by discriminate. rewrite len_app, len_cons1. lia.
      * destruct pl; reflexivity.
    + rewrite andb_false_r in H.
      assert (Hptu' : (if i_seen s && true then i_ptu s + 1 else i_ptu s) = len (ptext pl)).
      { rewrite Hptu, Hseen. destruct pl as [|x xs]; [reflexivity|]. cbn [negb andb]. unfold ptext. rewrite len_app. reflexivity. }
      rewrite Hptu' in H. rewrite Hdb, Hap, Hhe in H.
      destruct label as [|b r].
      * inversion H. clear H. subst s'. split; [reflexivity|]. exists pl. split; [exact Hpl|].
        cbn [i_inpre i_db i_ap i_ptu i_seen]. split; [reflexivity|]. split; [reflexivity|].
        exists [[]], [[]]. split; [discriminate|]. split; [exact Hall|]. split; [discriminate|]. split; [reflexivity|].
        constructor; [exact pairok_empty|constructor].
      * apply sbind_ok in H. destruct H as ([[db1 he1] ap1] & H1 & H). inversion H. clear H. subst s'.
        destruct (label_nonempty_pairs A cfg deny hy HU HL HOK HUSV HNT HNI HNM HMP (b :: r) _ _ _ _ _ ltac:(discriminate) Hb Hnd H1)
          as (-> & dbls & es & Hne & -> & -> & HP).
        split; [reflexivity|]. exists pl. split; [exact Hpl|].
        cbn [i_inpre i_db i_ap i_ptu i_seen]. split; [reflexivity|]. split; [reflexivity|].
        exists [b :: r], dbls. split; [discriminate|]. split; [exact Hall|]. split; [exact Hne|]. split; [reflexivity|exact HP].
  - destruct HH as (Hseen & Hptu & done & DBL & Hdn & Hall & HD & Hdb & HP). cbn [andb] in H.
    rewrite Hseen in H. cbn [andb negb] in H. rewrite Hhe in H.
    destruct label as [|b r].
    + inversion H. clear H. subst s'. split; [reflexivity|]. exists pl. split; [exact Hpl|].
      cbn [i_inpre i_db i_ap i_ptu i_seen]. split; [reflexivity|]. split; [exact Hptu|].
      exists (done ++ [[]]), (DBL ++ [[]]). split; [destruct done; discriminate|]. split; [rewrite <- app_assoc; exact Hall|].
      split; [destruct DBL; discriminate|]. split; [rewrite join_dots_snoc by exact HD; rewrite Hdb; reflexivity|].
      apply Forall2_app; [exact HP|constructor; [exact pairok_empty|constructor]].
    + apply sbind_ok in H. destruct H as ([[db1 he1] ap1] & H1 & H). inversion H. clear H. subst s'.
      destruct (label_nonempty_pairs A cfg deny hy HU HL HOK HUSV HNT HNI HNM HMP (b :: r) _ _ _ _ _ ltac:(discriminate) Hb Hnd H1)
        as (-> & dbls & es & Hne & -> & -> & HP2).
      split; [reflexivity|]. exists pl. split; [exact Hpl|].
      cbn [i_inpre i_db i_ap i_ptu i_seen]. split; [reflexivity|]. split; [exact Hptu|].
      exists (done ++ [b :: r]), (DBL ++ dbls). split; [destruct done; discriminate|]. split; [rewrite <- app_assoc; exact Hall|].
      split; [destruct DBL; [contradiction HD; reflexivity|discriminate]|].
      split; [rewrite (join_dots_app DBL dbls HD Hne), Hdb, <- app_assoc; reflexivity|].
      apply Forall2_app; assumption.
Qed.

Lemma labels_loop_DInv all labels : Forall bytes labels -> Forall nodot labels -> forall s s', DInv all s labels ->
  labels_loop A cfg true hy deny labels s = SOk s' -> DInv all s' [].
Proof.
  induction labels as [|l r IH]; intros Hb Hn s s' HI H; cbn [labels_loop] in H.
  - inversion H. subst. exact HI.
  - inversion Hb as [|? ? Hb1 Hb2]; subst. inversion Hn as [|? ? Hn1 Hn2]; subst.
    apply sbind_ok in H. destruct H as (s1 & H1 & H).
    exact (IH Hb2 Hn2 _ _ (label_step_DInv all l s s1 r Hb1 Hn1 HI H1) H).
Qed.

Theorem drun d ptu bd db ap : bytes d -> process_inner A cfg true hy deny d = IRes ptu bd false db ap -> ptu <> len d ->
  exists pl done DBL, Forall PassL pl /\ done <> [] /\ d = ptext pl ++ join_dots done /\ ptu = len (ptext pl) /\
    DBL <> [] /\ db = join_dots DBL /\ Forall2 PairOK DBL ap /\ is_bidi A cfg db = Ok bd /\
    (bd = true -> Forall (fun l => bidi_label A true l false = SOk (l, false)) DBL).
Proof.
  intros Hb H Hne. rewrite (inner_from_start A cfg true hy deny d Hb) in H. unfold process_innermost in H.
  rewrite N.sub_diag in H. fold s_start in H.
  assert (H0 : DInv (split_on DOT d) s_start (split_on DOT d)).
  { split; [reflexivity|]. exists []. split; [constructor|]. cbn [s_start i_inpre i_db i_ap i_ptu i_seen app join_dots negb].
    repeat split. }
  assert (Hbl : Forall bytes (split_on DOT d)) by (apply split_on_Forall; exact Hb).
  destruct (labels_loop A cfg true hy deny (split_on DOT d) s_start) as [s| |p] eqn:El; try discriminate.
  destruct (labels_loop_DInv _ _ Hbl (split_on_nodot d) _ _ H0 El) as (Hhe & pl & Hpl & HH).
  assert (Hres : IRes ptu bd false db ap = IRes (i_ptu s) bd false (i_db s) (i_ap s) /\ is_bidi A cfg (i_db s) = Ok bd /\
                 (bd = true -> exists ls h, bidi_labels A true (split_on DOT (i_db s)) (i_he s) = SOk (ls, h))).
  { destruct (is_bidi A cfg (i_db s)) as [[|]| |p] eqn:Eb; try discriminate.
    - destruct (bidi_labels A true (split_on DOT (i_db s)) (i_he s)) as [[ls he2]| |p] eqn:Ebl; try discriminate.
      pose proof (bidi_labels_true A _ _ _ _ Ebl) as Hls. subst ls. rewrite join_split in H. inversion H. subst.
      split; [reflexivity|]. split; [reflexivity|]. intros _. eauto.
    - inversion H. subst. split; [rewrite Hhe; reflexivity|]. split; [reflexivity|]. intros Hx. rewrite ?Hhe in Hx. discriminate Hx. }
  destruct Hres as (Hr & Hbd & Hbl2). inversion Hr. subst ptu db ap. clear Hr H.
  destruct (i_inpre s).
  - exfalso. destruct HH as (_ & _ & Hall & Hptu & _). apply Hne. rewrite Hptu. rewrite app_nil_r in Hall. rewrite <- Hall, join_split. reflexivity.
  - destruct HH as (_ & Hptu & done & DBL & Hdn & Hall & HD & Hdb & HP). rewrite app_nil_r in Hall.
    exists pl, done, DBL. repeat split; try assumption.
    + rewrite <- (join_split d), Hall. apply ptext_join. exact Hdn.
    + intros Hbt. destruct (Hbl2 Hbt) as (ls & h & Ebl). rewrite Hhe in Ebl.
      rewrite Hdb, (split_join DBL HD (pairok_all_nodot _ _ HP)) in Ebl. exact (proj2 (bidi_labels_all A _ _ _ _ Ebl)).
Qed.
End Loop.
