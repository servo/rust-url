(* Proofs/Idna_Api.v - what the verdicts of process / to_ascii / to_user_interface say about process_inner, and the
   adapter-free facts about the wrappers.  Before them: list facts used throughout,
   classify_for_punycode in closed form, and the unfolding equation of the first output walk (wbody: one iteration). *)
From RU Require Import Base.Prelude Base.Utf8 Base.Utf8Facts Base.U32_c13 Gen.Tables Model.Punycode Model.Uts46 Proofs.Idna_Sim.

Lemma concat_chars l : concat (chars l) = l.
Proof. unfold chars. induction l as [|c r IH]; [reflexivity|]. cbn [map concat app]. rewrite IH. reflexivity. Qed.

Lemma lower_noupper l : Forall (fun b => is_upper b = false) l -> map to_lower l = l.
Proof. induction 1 as [|x r Hx _ IH]; cbn [map]; [reflexivity|]. unfold to_lower at 1. rewrite Hx, IH. reflexivity. Qed.

Lemma nth_len_app (P R : list N) x dflt : nth (N.to_nat (len P)) (P ++ x :: R) dflt = x.
Proof. unfold len. rewrite Nat2N.id. rewrite app_nth2 by lia. rewrite Nat.sub_diag. reflexivity. Qed.

Lemma position_some (f : N -> bool) l : forall i, position f l = Some i -> Forall (fun b => f b = false) (firstn i l).
Proof.
  induction l as [|x r IH]; intros i H; [discriminate|]. cbn [position] in H.
  destruct (f x) eqn:E; [inversion H; constructor|].
  destruct (position f r) as [j|]; [|discriminate]. inversion H. subst i. cbn [firstn].
  constructor; [exact E|exact (IH j eq_refl)].
Qed.

Lemma len_zero (l : list N) : len l = 0 -> l = [].
Proof. destruct l; [reflexivity|]. unfold len. cbn [List.length]. lia. Qed.

Lemma len_cons1 c (l : list N) : len (c :: l) = len l + 1.
Proof. unfold len. cbn [List.length]. lia. Qed.

Lemma scan_mark_fffd_id l : forall he, scan_mark false is_fffd l he = SOk (l, he || existsb is_fffd l).
Proof.
  induction l as [|c r IH]; intros he; cbn [scan_mark existsb].
  - rewrite orb_false_r. reflexivity.
  - destruct (is_fffd c) eqn:E.
    + rewrite IH. cbn [lcons orb]. unfold is_fffd in E. apply N.eqb_eq in E. subst c. rewrite orb_true_r. reflexivity.
    + rewrite IH. cbn [lcons orb]. reflexivity.
Qed.
Lemma scan_mark_none ff bad l : forall he, existsb bad l = false -> scan_mark ff bad l he = SOk (l, he).
Proof.
  induction l as [|c r IH]; intros he H; cbn [scan_mark existsb] in *; [reflexivity|].
  apply orb_false_iff in H. destruct H as [H1 H2]. rewrite H1. rewrite (IH he H2). reflexivity.
Qed.
Lemma existsb_false_in (f : N -> bool) l x : existsb f l = false -> In x l -> f x = false.
Proof.
  intros H Hin. destruct (f x) eqn:E; [|reflexivity].
  assert (existsb f l = true) by (apply existsb_exists; exists x; auto). congruence.
Qed.

Lemma classify_spec l : classify_for_punycode l =
  if is_ascii_l l then PcAscii else if existsb is_fffd l then PcError else PcUnicode.
Proof.
  induction l as [|c r IH]; [reflexivity|]. cbn [classify_for_punycode is_ascii_l forallb].
  destruct (is_ascii_cp c) eqn:Ea; [|reflexivity]. cbn [andb existsb].
  replace (is_fffd c) with false; [exact IH|]. unfold is_ascii_cp in Ea. unfold is_fffd, FFFD, REPLACEMENT. lia.
Qed.

(* wbody: the body of one iteration of walk1 (Model/Uts46.v) with the recursive call abstracted as kk, so that the
   unfolding equation walk1_cons_gen holds by reflexivity.  The numbers 830, 844, 852, 885, 899 (and 810, 813 in
   walk1_cons_gen) are the panic-site tags of walk1, line numbers of idna/src/uts46.rs. *)
Section Walk1Step.
Variable cfg : bool.
Variable p : list N -> list N -> bool -> bool.
Variable d tld : list N.
Variable bidi : bool.

Definition wbody (ff he : bool) (label : list N) (ip : aal) (huo flushed : bool) (kk : bool -> N -> bool -> wres) (pte : N) : wres :=
  match ip with
  | MixedCaseAscii mixed_case => mixed_write cfg d mixed_case he true 830 844 pte flushed (kk huo)
  | _ =>
    if ff && cfg && (match classify_for_punycode label with PcError => true | _ => false end) then ([], WPanic 852)
    else
      let potentially_punycode :=
        if ff then negb (is_ascii_l label)
        else match classify_for_punycode label with PcUnicode => true | _ => false end in
      let unicode := if potentially_punycode then p label tld bidi else true in
      let huo' := if potentially_punycode then huo || unicode else huo in
      if unicode then flush_prefix d pte flushed (wapp (chars label) (kk huo' pte true))
      else match ip with
           | MixedCasePunycode mixed_case => mixed_write cfg d mixed_case he true 885 899 pte flushed (kk huo')
           | _ => flush_prefix d pte flushed (write_punycode_label cfg label (kk huo' pte true))
           end
  end.

Lemma walk1_cons_gen ff he label labels ip aps seen pte flushed huo :
  walk1 cfg ff p d tld bidi he (label :: labels) (ip :: aps) seen pte flushed huo =
  let kk := fun huo pte flushed => walk1 cfg ff p d tld bidi he labels aps true pte flushed huo in
  if seen then
    if flushed then wcons [DOT] (wbody ff he label ip huo flushed kk pte)
    else if cfg && negb (nth (N.to_nat pte) d 256 =? DOT) then ([], WPanic 810)
    else if pte + 1 =? len d then (if cfg && he then ([], WPanic 813) else ([], WPass))
    else wbody ff he label ip huo flushed kk (pte + 1)
  else wbody ff he label ip huo flushed kk pte.
Proof. reflexivity. Qed.
End Walk1Step.

Section Api.
Variable A : adapter.
Variable cfg : bool.

Lemma len_nil_iff (l : list N) : (0 =? len l) = true <-> l = [].
Proof. unfold len. destruct l; cbn [List.length]; split; intros H; try reflexivity; try discriminate; lia. Qed.

Lemma process_inner_nil ff hy deny : process_inner A cfg ff hy deny [] = IRes 0 false false [] [].
Proof. reflexivity. Qed.

(* an error verdict of to_user_interface (marking run): process_inner returned with had_errors = true *)
Lemma ui_err_inner d deny hy p b t :
  to_user_interface A cfg d deny hy p = UI b t true ->
  exists ptu bd db ap, process_inner A cfg false hy deny d = IRes ptu bd true db ap.
Proof.
  unfold to_user_interface, process.
  destruct (process_inner A cfg false hy deny d) as [ptu bd he db ap|s]; [|discriminate].
  destruct (ptu =? len d).
  { destruct (cfg && he); discriminate. }
  cbn [andb].
  destruct (cfg && negb (Bool.eqb he (existsb is_fffd db))); [discriminate|].
  match goal with |- context [walk1 ?a ?b ?c ?d ?e ?f ?g ?h ?i ?j ?k ?l ?m] => destruct (walk1 a b c d e f g h i j k l m) as [ws we] end.
  cbn [fst snd run_sink].
  destruct we as [|huo|s]; try discriminate.
  destruct he; [intros _; eauto|].
  rewrite andb_false_r. discriminate.
Qed.

(* an error verdict of to_ascii (fail-fast run): process_inner returned with had_errors = true *)
Lemma ta_err_inner d deny hy :
  to_ascii A cfg d deny hy DIgnore = Err ->
  exists ptu bd db ap, process_inner A cfg true hy deny d = IRes ptu bd true db ap.
Proof.
  unfold to_ascii, process.
  destruct (process_inner A cfg true hy deny d) as [ptu bd he db ap|s]; [|discriminate].
  destruct (ptu =? len d).
  { destruct (cfg && he); cbn [dns_is_ignore negb]; discriminate. }
  cbn [andb]. destruct he; [intros _; eauto|].
  destruct (cfg && negb (Bool.eqb false (existsb is_fffd db))); [discriminate|].
  match goal with |- context [walk1 ?a ?b ?c ?d ?e ?f ?g ?h ?i ?j ?k ?l ?m] => destruct (walk1 a b c d e f g h i j k l m) as [ws we] end.
  cbn [fst snd run_sink negb].
  destruct we as [|huo|s]; cbn [dns_is_ignore negb]; try discriminate.
  rewrite andb_false_r. cbn [dns_is_ignore negb]. discriminate.
Qed.

Lemma ta_of_exit d deny hy dns :
  process_inner A cfg true hy deny d = I_EXIT -> d <> [] -> to_ascii A cfg d deny hy dns = Err.
Proof.
  intros H Hd. unfold to_ascii, process. rewrite H. unfold I_EXIT.
  destruct (0 =? len d) eqn:E; [apply len_nil_iff in E; contradiction|]. reflexivity.
Qed.

(* NP: the result of a walk is not Passthrough.  With debug assertions and had_errors set walk1 never ends in
   Passthrough (walk1_no_pass_dbg): each of its ([], WPass) exits is then replaced by a panic. *)
Definition NP (r : wres) : Prop := snd r <> WPass.
Lemma NP_wcons w k : NP k -> NP (wcons w k).
Proof. unfold NP, wcons. cbn [snd]. auto. Qed.
Lemma NP_wapp w k : NP k -> NP (wapp w k).
Proof. unfold NP, wapp. cbn [snd]. auto. Qed.
Lemma NP_flush d pt fl k : NP k -> NP (flush_prefix d pt fl k).
Proof. unfold flush_prefix. destruct fl; [auto|apply NP_wcons]. Qed.
Lemma NP_wpl c label k : NP k -> NP (write_punycode_label c label k).
Proof.
  unfold write_punycode_label. intros H. destruct (encode_internal c label).
  - apply NP_wcons, NP_wapp, H.
  - unfold NP; cbn [snd]; discriminate.
  - unfold NP; cbn [snd]; discriminate.
Qed.
Lemma NP_mixed d mc pc sn sp pt fl k :
  (forall pt' fl', NP (k pt' fl')) -> NP (mixed_write true d mc true pc sn sp pt fl k).
Proof.
  intros Hk. unfold mixed_write. destruct (position is_upper mc) as [fu|].
  - destruct fl.
    + apply NP_wcons, NP_wapp, Hk.
    + cbn [andb]. destruct (pt + len (firstn fu mc) =? len d).
      * unfold NP; cbn [snd]; discriminate.
      * apply NP_wcons, NP_wapp, Hk.
  - destruct fl.
    + apply NP_wcons, Hk.
    + destruct (pc && (pt + len mc =? len d)).
      * cbn [andb]. unfold NP; cbn [snd]; discriminate.
      * apply Hk.
Qed.
Lemma walk1_no_pass_dbg ff p d tld bd labels : forall aps seen pte flushed huo,
  NP (walk1 true ff p d tld bd true labels aps seen pte flushed huo).
Proof.
  induction labels as [|label labels IH]; intros aps seen pte flushed huo; cbn [walk1].
  - unfold NP; cbn [snd]; discriminate.
  - destruct aps as [|ip aps]; [unfold NP; cbn [snd]; discriminate|].
    repeat first
      [ apply NP_wcons | apply NP_wapp | apply NP_flush | apply NP_wpl | (apply NP_mixed; intros) | apply IH
      | (unfold NP; cbn [snd]; discriminate)
      | match goal with |- NP (if ?b then _ else _) => destruct b end
      | match goal with |- NP (match ?x with _ => _ end) => destruct x end ].
Qed.

(* C10: the borrowed result is the input; the DNS length check *)
Theorem to_ascii_borrow d deny hy dns r : to_ascii A cfg d deny hy dns = Ok (true, r) -> r = d.
Proof.
  unfold to_ascii. destruct (process A cfg true never_unicode d deny hy None None false) as [[st s] a].
  destruct st; try discriminate.
  - destruct (negb (dns_is_ignore dns)).
    + destruct (cfg && negb (is_ascii_l d)); [discriminate|].
      destruct (negb (verify_dns_length d (dns_is_root dns))); [discriminate|]. intros H; inversion H; reflexivity.
    + intros H; inversion H; reflexivity.
  - destruct (negb (dns_is_ignore dns)).
    + destruct (cfg && negb (is_ascii_l s)); [discriminate|].
      destruct (negb (verify_dns_length s (dns_is_root dns))); discriminate.
    + discriminate.
Qed.

Theorem to_ascii_dns d deny hy dns b r :
  to_ascii A cfg d deny hy dns = Ok (b, r) -> dns_is_ignore dns = false ->
  verify_dns_length r (dns_is_root dns) = true.
Proof.
  unfold to_ascii. intros H Hn. rewrite Hn in H. cbn [negb] in H.
  destruct (process A cfg true never_unicode d deny hy None None false) as [[st s] a].
  destruct st; try discriminate.
  - destruct (cfg && negb (is_ascii_l d)); [discriminate|].
    destruct (verify_dns_length d (dns_is_root dns)) eqn:E; cbn [negb] in H; [|discriminate]. inversion H; subst. exact E.
  - destruct (cfg && negb (is_ascii_l s)); [discriminate|].
    destruct (verify_dns_length s (dns_is_root dns)) eqn:E; cbn [negb] in H; [|discriminate]. inversion H; subst. exact E.
Qed.

(* an Ok result under any DNS mode is the result under DIgnore *)
Theorem to_ascii_dns_ignore d deny hy dns b r :
  to_ascii A cfg d deny hy dns = Ok (b, r) -> to_ascii A cfg d deny hy DIgnore = Ok (b, r).
Proof.
  unfold to_ascii. destruct (process A cfg true never_unicode d deny hy None None false) as [[st s] a].
  destruct st; try discriminate; cbn [dns_is_ignore negb].
  - destruct (negb (dns_is_ignore dns)); [|auto].
    destruct (cfg && negb (is_ascii_l d)); [discriminate|].
    destruct (negb (verify_dns_length d (dns_is_root dns))); [discriminate|auto].
  - destruct (negb (dns_is_ignore dns)); [|auto].
    destruct (cfg && negb (is_ascii_l s)); [discriminate|].
    destruct (negb (verify_dns_length s (dns_is_root dns))); [discriminate|auto].
Qed.
End Api.

(* what verify_dns_length = true implies (verify_dns_length_ok; the converse is not stated) *)
Definition ends_with_dot (r : list N) : bool := match last_opt r with Some l => l =? DOT | None => false end.
Definition dns_ok (allow_root : bool) (r : list N) : Prop :=
  let w := if ends_with_dot r then removelast r else r in
  (ends_with_dot r = true -> allow_root = true) /\
  len w <= T_IDNA_DNS_TOTAL /\
  Forall (fun l => 1 <= len l /\ len l <= T_IDNA_DNS_LABEL) (split_on DOT w).

Lemma verify_dns_length_ok r allow : verify_dns_length r allow = true -> dns_ok allow r.
Proof.
  unfold verify_dns_length, dns_ok, ends_with_dot.
  destruct (last_opt r) as [l|].
  - destruct (l =? DOT).
    + destruct allow; cbn [negb]; [|discriminate].
      destruct (T_IDNA_DNS_TOTAL <? len (removelast r)) eqn:E; [discriminate|].
      intros H. split; [auto|]. split; [lia|].
      apply Forall_forall. intros x Hx. rewrite forallb_forall in H. specialize (H x Hx).
      destruct x; [discriminate|]. cbn [negb andb] in H. unfold len in *. cbn [List.length] in *. lia.
    + destruct (T_IDNA_DNS_TOTAL <? len r) eqn:E; [discriminate|].
      intros H. split; [discriminate|]. split; [lia|].
      apply Forall_forall. intros x Hx. rewrite forallb_forall in H. specialize (H x Hx).
      destruct x; [discriminate|]. cbn [negb andb] in H. unfold len in *. cbn [List.length] in *. lia.
  - destruct (T_IDNA_DNS_TOTAL <? len r) eqn:E; [discriminate|].
    intros H. split; [discriminate|]. split; [lia|].
    apply Forall_forall. intros x Hx. rewrite forallb_forall in H. specialize (H x Hx).
    destruct x; [discriminate|]. cbn [negb andb] in H. unfold len in *. cbn [List.length] in *. lia.
Qed.

(* the fastest tier: fast_tier iter mrls = None means it accepted all of iter (lower-case ASCII letters and dots only) *)
Definition lower_or_dot (b : N) : Prop := (97 <= b /\ b <= 122) \/ b = DOT.
Lemma in_range8_lower b : b < 256 -> in_inclusive_range8 b 97 122 = true -> 97 <= b /\ b <= 122.
Proof. unfold in_inclusive_range8. intros Hb H. assert (b < 97 \/ 97 <= b) as [Hc|Hc] by lia; lia. Qed.
Lemma fast_tier_none iter : bytes iter -> forall mrls, fast_tier iter mrls = None -> Forall lower_or_dot iter.
Proof.
  induction iter as [|b r IH]; intros Hby mrls H; [constructor|].
  inversion Hby as [|? ? Hb Hr]; subst. specialize (IH Hr).
  cbn [fast_tier] in H. destruct (in_inclusive_range8 b 97 122) eqn:E.
  - constructor; [left; apply in_range8_lower; [exact Hb|exact E] | eapply IH; exact H].
  - destruct (b =? DOT) eqn:E2; [|discriminate].
    constructor; [right; unfold DOT in *; lia | eapply IH; exact H].
Qed.

Section Fast.
Variable A : adapter.
Variable cfg : bool.
Lemma process_fast ff p d deny hy k1 k2 w : fast_tier d d = None ->
  process A cfg ff p d deny hy k1 k2 w = (PPassthrough, [], []).
Proof.
  intros H. unfold process, process_inner. rewrite H. rewrite N.eqb_refl. rewrite andb_false_r. reflexivity.
Qed.
Lemma to_ascii_fast d deny hy : fast_tier d d = None -> to_ascii A cfg d deny hy DIgnore = Ok (true, d).
Proof. intros H. unfold to_ascii. rewrite process_fast by exact H. reflexivity. Qed.
Lemma to_ui_fast d deny hy p : fast_tier d d = None -> to_user_interface A cfg d deny hy p = UI true d false.
Proof. intros H. unfold to_user_interface. rewrite process_fast by exact H. reflexivity. Qed.
End Fast.
