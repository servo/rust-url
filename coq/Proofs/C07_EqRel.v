(* Proofs/C07_EqRel.v - from the relation of the C01 equivalence to the relation of the C07 equivalence:
   `related` (Proofs/C01_EqRef.v: well-formed, same ten API strings, same text before the fragment / before the
   query, same cannot-be-a-base flag, spec_valid) implies corr (Proofs/C07_Corr.v), given a few facts
   that the ten strings do not determine: the host text facts of the model record, a clean username, the port
   bound and the host range on the Standard's side (related_corr_of; the canonical records of the three C01 classes
   and every parsed record are its instances).  With "no host => no credentials, no port, not special" on the model
   side (parse_extra) also corrS: related_corrS of Proofs/C07_EqSix.v.
   The layout flags ("//" present, '@' present, "/." marker, password present but empty) are read off the two
   serializations: all components are equal, the serializations are equal, so the punctuation between them is. *)
From Coq Require Import Bool.
From RU Require Import Base.Prelude Base.Utf8 Model.AsciiSet Gen.Tables Model.PercentEncoding
  Model.HostT Model.UrlRecord Model.Parser Model.Setters Model.WF Spec.Whatwg
  Proofs.ListN Proofs.C03_WF Proofs.C06_List Proofs.C06_WFI Proofs.C06_Tail Proofs.C06_Suffix Proofs.C06_Steps
  Proofs.C06_FragQuery Proofs.C02_Enc Proofs.C01_EqApi Proofs.C01_EqRef
  Proofs.C07_Defs Proofs.C07_Corr.
From RU Require Import Proofs.Decimal.

(* the port text determines the port *)
Lemma serialize_integer_inj p p' : serialize_integer p = serialize_integer p' -> p = p'.
Proof.
  intros E. rewrite <- (proj1 (serialize_integer_spec p)), <- (proj1 (serialize_integer_spec p')), E. reflexivity.
Qed.

Lemma dec_digits_ne fuel : forall n acc, acc <> [] -> dec_digits fuel n acc <> [].
Proof.
  induction fuel as [|k IH]; intros n acc H; [exact H|]. cbn [dec_digits].
  destruct (n <? 10); [discriminate | apply IH; discriminate].
Qed.

Lemma serialize_integer_not_nil p : serialize_integer p <> [].
Proof.
  unfold serialize_integer. cbn [dec_digits]. destruct (p <? 10); [discriminate|].
  apply dec_digits_ne. discriminate.
Qed.

(* the text before the fragment / before the query, model side *)
Lemma piece0 u k : piece u 0 k = nfirstn k (ser u).
Proof. unfold piece. rewrite N.sub_0_r, nskipn_0. reflexivity. Qed.

Lemma piece_full u : piece u 0 (nlen (ser u)) = ser u.
Proof. rewrite piece0. apply nfirstn_all. lia. Qed.

Lemma ser_split_fragment dbg u f : wf_b u = true -> fragment dbg u = Some f ->
  ser u = b_before_fragment u ++ ftext f.
Proof.
  intros W Hf. rewrite (fragment_eval dbg u W) in Hf. injection Hf as Hf. subst f.
  pose proof (qf_f (wf_qf_facts u W)) as Q. unfold b_before_fragment.
  destruct (fragment_start u) as [fs|]; [|cbn [ftext]; rewrite app_nil_r; reflexivity].
  destruct Q as (_ & Q2 & Q3). cbn [pidx ftext].
  rewrite <- (piece_full u) at 1.
  rewrite <- (piece_cat u 0 fs (nlen (ser u))) by lia.
  rewrite <- (piece_cat u fs (fs + 1) (nlen (ser u))) by lia.
  rewrite (piece_byte u fs 35) by (apply byte_eqb_nnth; exact Q2).
  rewrite piece0. reflexivity.
Qed.

Lemma before_fragment_split_query dbg u q : wf_b u = true -> query dbg u = Some q ->
  b_before_fragment u = b_before_query u ++ qtext q.
Proof.
  intros W Hq. rewrite (query_eval dbg u W) in Hq. injection Hq as Hq. subst q.
  pose proof (wf_qf_facts u W) as QF. pose proof (qf_q QF) as Q1. pose proof (qf_f QF) as Q2. pose proof (qf_qf QF) as Q3.
  unfold b_before_fragment, b_before_query.
  destruct (query_start u) as [qs|].
  - destruct Q1 as (_ & Q1b & Q1c). cbn [pidx qtext].
    destruct (fragment_start u) as [fs|].
    + rewrite <- piece0. rewrite <- (piece_cat u 0 qs fs) by lia.
      rewrite <- (piece_cat u qs (qs + 1) fs) by lia.
      rewrite (piece_byte u qs 63) by (apply byte_eqb_nnth; exact Q1b).
      rewrite piece0. reflexivity.
    + rewrite <- (piece_full u) at 1. rewrite <- (piece_cat u 0 qs (nlen (ser u))) by lia.
      rewrite <- (piece_cat u qs (qs + 1) (nlen (ser u))) by lia.
      rewrite (piece_byte u qs 63) by (apply byte_eqb_nnth; exact Q1b).
      rewrite piece0. reflexivity.
  - cbn [qtext]. rewrite app_nil_r. destruct (fragment_start u); reflexivity.
Qed.

(* the same cuts of the Standard's serialization *)
Section SpecCuts.
Variable shs : spec_host -> list N.

Lemma serialize_url_fragment su :
  serialize_url shs su false = serialize_url shs su true ++ ftext (su_fragment su).
Proof.
  unfold serialize_url, ftext. rewrite app_nil_r. rewrite <- !app_assoc. reflexivity.
Qed.

Lemma serialize_url_query su :
  serialize_url shs su true = serialize_url shs (Whatwg.set_query su None) true ++ qtext (su_query su).
Proof.
  unfold serialize_url, qtext, serialize_path, includes_credentials.
  destruct su as [sc un pw ho po pa qu fr]. cbn [Whatwg.set_query su_scheme su_username su_password su_host su_port su_path su_query su_fragment].
  rewrite !app_nil_r. rewrite <- !app_assoc. reflexivity.
Qed.
End SpecCuts.

Lemma ftext_inj f f' : ftext f = ftext f' -> f = f'.
Proof. destruct f, f'; cbn [ftext]; intros H; try discriminate H; [injection H as ->|]; reflexivity. Qed.
Lemma qtext_inj q q' : qtext q = qtext q' -> q = q'.
Proof. destruct q, q'; cbn [qtext]; intros H; try discriminate H; [injection H as ->|]; reflexivity. Qed.

(* what the ten strings do not determine *)
Section Bridge.
Variable dbg : bool.
Variable shs : spec_host -> list N.

Record parse_extra (u : url) (su : spec_url) : Prop := mk_px {
  px_ht : host_text_ok u;
  px_uclean : forall un, username dbg u = Some un -> clean T_USERINFO un = true;
  px_nohost : has_host u = false -> has_authority_b u = true ->
              username_end u = host_start u /\ port u = None /\ is_special su = false;
  px_port : match su_port su with Some p => p <= 65535 | None => True end;
  px_range : match su_host su with Some h => h = SEmpty \/ shs h <> [] | None => True end;
  px_empty : shs SEmpty = []
}.

(* the punctuation of the model's serialization *)
Definition m_front (A T M : bool) (un : list N) (pw : option (list N)) (H : list N) (po : option N) : list N :=
  (if A then s_css else [58]) ++ un ++ (match pw with Some p => 58 :: p | None => [] end)
  ++ (if T then [64] else []) ++ H ++ (match po with Some p => 58 :: decimal p | None => [] end)
  ++ (if M then [47; 46] else []).

Definition s_front (su : spec_url) : list N :=
  [58]
  ++ match su_host su with
     | Some h =>
         [47; 47]
         ++ (if includes_credentials su then
               su_username su ++ (if negb (list_eqb (su_password su) []) then 58 :: su_password su else []) ++ [64]
             else [])
         ++ shs h
         ++ match su_port su with Some p => 58 :: serialize_integer p | None => [] end
     | None => if spec_marker su then [47; 46] else []
     end.

Lemma serialize_url_front su :
  serialize_url shs su false
  = su_scheme su ++ s_front su ++ serialize_path su ++ qtext (su_query su) ++ ftext (su_fragment su).
Proof.
  unfold serialize_url, s_front, spec_marker, qtext, ftext.
  destruct (su_host su) as [h|].
  - cbn [app]. rewrite <- ?app_assoc. cbn [app]. rewrite <- ?app_assoc. reflexivity.
  - cbn [app]. destruct (su_path su) as [p|[|p0 [|p1 pr]]]; cbn [app]; reflexivity.
Qed.

Lemma list_eqb_nil_false (l : list N) : list_eqb l [] = false -> l <> [].
Proof. intros H ->. discriminate H. Qed.

(* the part of parse_extra that the relation corr needs (px_nohost is used for `sane` only; it is false of
   "file:///p", whose record is special and has "//" without host) *)
Record parse_extra0 (u : url) (su : spec_url) : Prop := mk_px0 {
  px0_ht : host_text_ok u;
  px0_uclean : forall un, username dbg u = Some un -> clean T_USERINFO un = true;
  px0_port : match su_port su with Some p => p <= 65535 | None => True end;
  px0_range : match su_host su with Some h => h = SEmpty \/ shs h <> [] | None => True end;
  px0_empty : shs SEmpty = []
}.

Lemma parse_extra_0 u su : parse_extra u su -> parse_extra0 u su.
Proof. intros [XT XU XN XP XR XE]. constructor; assumption. Qed.

(* the bridge, with the facts it needs listed one by one (the empty host's text only where the record has it) *)
Theorem related_corr_of u su :
  related dbg shs u su -> host_text_ok u ->
  (forall un, username dbg u = Some un -> clean T_USERINFO un = true) ->
  match su_port su with Some p => p <= 65535 | None => True end ->
  match su_host su with Some h => h = SEmpty \/ shs h <> [] | None => True end ->
  (su_host su = Some SEmpty -> shs SEmpty = []) ->
  corr dbg shs u su.
Proof.
  intros [W Hapi Hbf Hbq Hcbb Hsch Hval] XT XU XP XR XE.
  destruct (accessors_reconcatenate dbg u W)
    as (sch & un & pw & hs & pth & q & f & Es & Eun & Epw & Ehs & Ept & Eq & Ef & Eser & Hh1 & Hh0).
  rewrite (api_by_accessors dbg u W _ _ _ _ _ _ _ Es Eun Epw Ehs Ept Eq Ef) in Hapi.
  unfold api_of_parts, spec_api_list in Hapi.
  injection Hapi as A1 A2 A3 A4 A5 A6 A7 A8 A9 A10.
  unfold get_protocol in A2. apply app_inv_tail in A2.
  unfold get_username in A3. unfold get_password in A4. unfold get_hostname in A6. unfold get_pathname in A8.
  unfold get_href in A1.
  (* fragment and query *)
  assert (f = su_fragment su) as Ff.
  { apply ftext_inj. apply (app_inv_head (b_before_fragment u)).
    rewrite <- (ser_split_fragment dbg u f W Ef). rewrite Hbf, <- serialize_url_fragment. exact A1. }
  assert (q = su_query su) as Fq.
  { apply qtext_inj. apply (app_inv_head (b_before_query u)).
    rewrite <- (before_fragment_split_query dbg u q W Eq). rewrite Hbq, <- serialize_url_query. exact Hbf. }
  (* the host piece *)
  assert (piece u (host_start u) (host_end u) = optl hs) as Ehp.
  { destruct (has_host u) eqn:Hh; [rewrite (Hh1 eq_refl); reflexivity|].
    rewrite (Hh0 eq_refl). rewrite (host_str_eval u W), Hh in Ehs. injection Ehs as <-. reflexivity. }
  (* the port *)
  assert (match port u with Some p => p <= 65535 | None => True end) as Hpb.
  { destruct (port u) as [p|] eqn:Epo; [|exact I].
    destruct (has_authority_b u) eqn:Ha.
    - pose proof (af_port (wf_auth_facts u W Ha)) as P. rewrite Epo in P. tauto.
    - pose proof (nf_port (wf_noauth_facts u W Ha)) as P. congruence. }
  assert (port u = su_port su) as Epo.
  { unfold get_port in A7. destruct (port u) as [p|]; destruct (su_port su) as [p'|]; cbn [port_text] in A7.
    - f_equal. apply serialize_integer_inj. rewrite <- A7. symmetry. apply decimal_serialize. exact Hpb.
    - exfalso. rewrite (decimal_serialize p Hpb) in A7. exact (serialize_integer_not_nil p A7).
    - exfalso. symmetry in A7. exact (serialize_integer_not_nil p' A7).
    - reflexivity. }
  (* the fronts of the two serializations are equal *)
  assert (m_front (has_authority_b u) (has_authority_b u && negb (username_end u =? host_start u))
                  (negb (has_authority_b u) && (path_start u =? scheme_end u + 3)) un pw (optl hs) (port u)
          = s_front su) as K.
  { rewrite Eser, Ehp, serialize_url_front in A1. subst sch pth q f.
    apply app_inv_head in A1.
    unfold m_front. rewrite <- ?app_assoc.
    apply (app_inv_tail (serialize_path su ++ qtext (su_query su) ++ ftext (su_fragment su))).
    rewrite <- !app_assoc. unfold qtext, ftext. exact A1. }
  clear A1 A5 A9 A10 Eser.
  subst sch un pth q f.
  unfold m_front, s_front in K.
  destruct (has_authority_b u) eqn:Ha.
  - (* "//" *)
    pose proof (wf_auth_facts u W Ha) as F.
    cbn [negb andb app] in K. rewrite app_nil_r in K. unfold s_css in K.
    destruct (su_host su) as [h|] eqn:Esh.
    2:{ exfalso. cbn [app] in K. destruct (spec_marker su); discriminate K. }
    cbn [app] in K. injection K as K.
    cbn [serialize_host_opt] in A6. rewrite A6, Epo in K.
    assert (match su_port su with Some p => 58 :: decimal p | None => [] end
            = match su_port su with Some p => 58 :: serialize_integer p | None => [] end) as Ep.
    { destruct (su_port su) as [p|]; [|reflexivity]. rewrite (decimal_serialize p XP). reflexivity. }
    rewrite Ep in K. rewrite !app_assoc in K. apply app_inv_tail in K. apply app_inv_tail in K.
    rewrite <- !app_assoc in K.
    (* credentials *)
    assert (pw = pw_opt (su_password su)
            /\ negb (username_end u =? host_start u) = includes_credentials su) as [Fpw Fat].
    { unfold includes_credentials in *. rewrite <- A4 in *.
      destruct (su_username su) as [|a ra] eqn:Eu.
      - cbn [list_eqb negb orb app] in K |- *.
        destruct pw as [[|b rb]|]; cbn [optl list_eqb negb app pw_opt] in K |- *.
        + destruct (negb (username_end u =? host_start u)); discriminate K.
        + injection K as K. apply app_inv_head in K.
          destruct (negb (username_end u =? host_start u)); [split; reflexivity | discriminate K].
        + destruct (negb (username_end u =? host_start u)); [discriminate K | split; reflexivity].
      - cbn [list_eqb negb orb] in K |- *. apply app_inv_head in K.
        destruct pw as [[|b rb]|]; cbn [optl list_eqb negb app pw_opt] in K |- *.
        + destruct (negb (username_end u =? host_start u)); discriminate K.
        + injection K as K. apply app_inv_head in K.
          destruct (negb (username_end u =? host_start u)); [split; reflexivity | discriminate K].
        + destruct (negb (username_end u =? host_start u)); [split; reflexivity | discriminate K]. }
    (* host *)
    assert (has_host u = negb (host_is_empty (Some h))) as Fhh.
    { cbn [host_is_empty]. destruct (has_host u) eqn:Hh.
      - destruct (XT Hh) as (T1 & _). rewrite (Hh1 eq_refl) in A6. cbn [optl] in A6.
        destruct h; try reflexivity. exfalso. rewrite (XE eq_refl) in A6.
        assert (nlen (piece u (host_start u) (host_end u)) = 0) as L by (rewrite A6; reflexivity).
        unfold piece in L. pose proof (af_ps F); pose proof (af_len F).
        rewrite nlen_nfirstn in L by (rewrite nlen_nskipn; lia). lia.
      - rewrite <- Ehp, (Hh0 eq_refl) in A6. destruct XR as [->|XR]; [reflexivity|].
        exfalso. apply XR. symmetry. exact A6. }
    constructor; try assumption.
    + rewrite Epw, Fpw. reflexivity.
    + rewrite Ehs, Esh. cbn [host_text option_map serialize_host_opt]. rewrite A6. reflexivity.
    + rewrite Esh. cbn [host_is_null orb]. exact Fhh.
    + rewrite Ha, Esh. reflexivity.
    + rewrite Ha. cbn [andb]. exact Fat.
    + rewrite Ha. unfold spec_marker. rewrite Esh. reflexivity.
    + rewrite (cannot_be_a_base_eval u W) in Hcbb. injection Hcbb as Hcbb. exact Hcbb.
    + apply XU. exact Eun.
  - (* no "//" *)
    pose proof (wf_noauth_facts u W Ha) as F.
    assert (su_username su = []) as Eu.
    { rewrite (username_eval dbg u W) in Eun. injection Eun as Eun. rewrite <- Eun. cbn [pidx]. rewrite Ha.
      rewrite (nf_ue F). apply piece_empty. }
    assert (pw = None) as Ep.
    { rewrite (password_piece dbg u W) in Epw. injection Epw as Epw. rewrite <- Epw.
      unfold has_password_b. rewrite Ha. reflexivity. }
    assert (optl hs = []) as Eh0.
    { rewrite <- Ehp, (nf_hs F), (nf_he F). apply piece_empty. }
    assert (has_host u = false) as Hh by (unfold has_host; rewrite (nf_host F); reflexivity).
    subst pw. cbn [optl] in A4.
    rewrite Eu, Eh0, (nf_port F) in K. cbn [negb andb app] in K.
    destruct (su_host su) as [h|] eqn:Esh.
    { exfalso. cbn [app] in K. destruct (path_start u =? scheme_end u + 3); discriminate K. }
    injection K as K.
    assert ((path_start u =? scheme_end u + 3) = spec_marker su) as Fm.
    { destruct (path_start u =? scheme_end u + 3), (spec_marker su); try reflexivity; discriminate K. }
    constructor; try assumption.
    + rewrite Epw, <- A4. reflexivity.
    + rewrite Ehs, Esh. cbn [host_text option_map]. rewrite A6. reflexivity.
    + rewrite Hh, Esh. reflexivity.
    + rewrite Ha, Esh. reflexivity.
    + rewrite Ha. unfold includes_credentials. rewrite Eu, <- A4. reflexivity.
    + rewrite Ha. cbn [negb andb]. exact Fm.
    + rewrite (cannot_be_a_base_eval u W) in Hcbb. injection Hcbb as Hcbb. exact Hcbb.
    + apply XU. exact Eun.
Qed.

Theorem related_corr0 u su :
  related dbg shs u su -> parse_extra0 u su -> corr dbg shs u su.
Proof. intros R [XT XU XP XR XE]. exact (related_corr_of u su R XT XU XP XR (fun _ => XE)). Qed.

Theorem related_corr u su :
  related dbg shs u su -> parse_extra u su -> corr dbg shs u su.
Proof. intros R X. exact (related_corr0 u su R (parse_extra_0 u su X)). Qed.

End Bridge.
