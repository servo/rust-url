(* Proofs/C03_ReachFile.v - the arms of Parser::parse_url.
   Whatever the input, the encoding override and the build, a record that parse_url returns was produced in one of
   four ways (parse_arm): by the authority state behind "//"; as "scheme:path" of a non-special scheme without
   authority; as a reference that keeps the front of the base (the base itself for "", "?q", "#f", or a new path behind
   path_start of the base); or by a file state ("file://" host path, the host coming from Host::parse, from the file
   base, or absent - the drive-letter quirks change WHICH record is produced, not its layout).  parse_url_arm proves
   this once, from the shapes of the parser states (C03_ReachParts, and below for the file scheme); an invariant of
   parse results is then a case analysis over the four arms: here wf_b /\ host_text_ok (parse_url_wf_all); port and
   host end in C03_ParseFront, the IP host text in C03_HostKind, the path of a special scheme in C03_InvSP. *)
From RU Require Import Base.Prelude Base.Utf8 Model.AsciiSet Gen.Tables Model.PercentEncoding
  Model.HostT Model.UrlRecord Model.Parser Model.Setters Model.WF
  Proofs.ListN Proofs.C06_List Proofs.C02_Parts Proofs.C02_Opaque Proofs.C03_WF Proofs.C06_WFI Proofs.C06_Tail
  Proofs.C06_Steps Proofs.C06_Suffix Proofs.C06_FragQuery Proofs.C06_PathParser
  Proofs.C04_Parse Proofs.C04_PathTotal Proofs.C04_ParseTotal Proofs.C04_PathFile Proofs.C04_ParseFile
  Proofs.C05_Parser Proofs.C03_ReachParts Proofs.C03_Reach.

(* the path states for the file scheme *)
Lemma parse_path_shape_file dbg hh ps ser l s' hh' rem : ps <= nlen ser ->
  forallb no_qh (nskipn ps ser) = true ->
  parse_path dbg CUrlParser STFile hh ps ser l = POk (s', hh', rem) ->
  agree_pre ps ser s' /\ ps + 1 <= nlen s' /\ nnth s' ps = Some 47
  /\ forallb no_qh (nskipn ps s') = true /\ rem_ok rem.
Proof.
  intros Hl Hq H. unfold parse_path in H.
  assert (nlen (nfirstn ps ser) = ps) as Lp by (apply nlen_nfirstn; exact Hl).
  assert (PInv ps ps (nfirstn ps ser) ser) as I0 by (split; [reflexivity | exact Hq]).
  destruct (pinv_loop_url dbg STFile ps ps (nfirstn ps ser) (N.le_refl _) ltac:(lia) Lp (fun _ => eq_refl)
              l ser (nlen ser) [] hh s' hh' rem H I0 Hl) as (x & Ex & Ix & Hr).
  pose proof (pinv_len ps ps _ (N.le_refl _) ltac:(lia) Lp x Ix) as Lx.
  pose proof (pinv_file_path_fixup ps ps _ (N.le_refl _) ltac:(lia) Lp STFile x Ix (fun _ => eq_refl)) as If.
  rewrite <- Ex in If.
  pose proof (fixup_slash STFile ps x eq_refl Lx) as F. rewrite <- Ex in F.
  destruct If as [I1 I2]. pose proof (nnth_lt _ _ _ F).
  split; [exact I1|]. split; [lia|]. split; [exact F|]. split; [exact I2 | exact Hr].
Qed.

Lemma parse_path_start_shape_file dbg hh ser l s' hh' rem :
  parse_path_start dbg CUrlParser STFile hh ser l = POk (s', hh', rem) ->
  agree_pre (nlen ser) ser s' /\ nlen ser + 1 <= nlen s' /\ nnth s' (nlen ser) = Some 47
  /\ forallb no_qh (nskipn (nlen ser) s') = true /\ rem_ok rem.
Proof.
  unfold parse_path_start. intros H.
  assert (forall X, parse_path dbg CUrlParser STFile hh (nlen ser) (ser ++ [47]) X = POk (s', hh', rem) ->
            agree_pre (nlen ser) ser s' /\ nlen ser + 1 <= nlen s' /\ nnth s' (nlen ser) = Some 47
            /\ forallb no_qh (nskipn (nlen ser) s') = true /\ rem_ok rem) as Hpush.
  { intros X HX.
    destruct (parse_path_shape_file dbg hh (nlen ser) (ser ++ [47]) X s' hh' rem
                ltac:(rewrite nlen_app; lia) ltac:(rewrite nskipn_app_exact; reflexivity) HX) as (A & B & C & D & E).
    split; [|split; [exact B | split; [exact C | split; [exact D | exact E]]]].
    eapply agree_pre_trans; [apply agree_pre_app_r | exact A]. }
  assert (forall X, parse_path dbg CUrlParser STFile hh (nlen ser) ser X = POk (s', hh', rem) ->
            agree_pre (nlen ser) ser s' /\ nlen ser + 1 <= nlen s' /\ nnth s' (nlen ser) = Some 47
            /\ forallb no_qh (nskipn (nlen ser) s') = true /\ rem_ok rem) as Hsame.
  { intros X HX. apply (parse_path_shape_file dbg hh (nlen ser) ser X s' hh' rem (N.le_refl _)); [|exact HX].
    rewrite nskipn_all by lia. reflexivity. }
  destruct (inp_split_first l) as [mc remaining]. cbn [st_is_special] in H.
  destruct (negb (ends_with_byte 47 ser)); [|exact (Hsame _ H)].
  destruct mc as [c|]; [destruct (is_slash_or_bslash c)|]; exact (Hpush _ H).
Qed.

(* the record "file://" host path *)
Lemma file_pre_bytes s i : nfirstn 7 s = s_file_css -> i < 7 -> nnth s i = nnth s_file_css i.
Proof. intros H Hi. rewrite <- (nnth_nfirstn s 7 i) by lia. rewrite H. reflexivity. Qed.

Lemma file_front_wf s he hi :
  nfirstn 7 s = s_file_css -> 7 <= he -> nnth s he = Some 47 -> forallb no_qh (nskipn he s) = true ->
  (hi = HI_None -> he = 7) ->
  (hi <> HI_None -> 7 < he /\ byte_eqb s 7 58 = false /\ byte_eqb s 7 64 = false) ->
  wf_b (file_url s 7 he hi None None) = true /\ host_text_ok (file_url s 7 he hi None None).
Proof.
  intros H7 Hhe H47 Hq Hn Hh. pose proof (nnth_lt _ _ _ H47) as Hl. unfold file_url.
  assert (byte_eqb s 7 58 = false) as B58.
  { destruct hi; [rewrite (Hn eq_refl) in H47; apply byte_eqb_false_of; congruence | | |];
      apply Hh; discriminate. }
  split.
  - apply mid_wf; try reflexivity; urec.
    + unfold scheme_ok. urec. split; [lia|]. split; [|split].
      * exists 102. split; [rewrite (file_pre_bytes s 0 H7) by lia; reflexivity | reflexivity].
      * rewrite <- (nfirstn_nfirstn 4 7 s) by lia. rewrite H7. reflexivity.
      * apply byte_eqb_true_iff. rewrite (file_pre_bytes s 4 H7) by lia. reflexivity.
    + lia.
    + exact Hq.
    + assert (has_authority_b (mkUrl s 4 7 7 he hi None he None None) = true) as Ha.
      { unfold has_authority_b. urec. apply css_of_bytes; rewrite (file_pre_bytes s _ H7) by lia; reflexivity. }
      rewrite Ha. split; [|right; exact H47].
      unfold auth_ok, userinfo_ok, port_ok. urec. repeat split; try lia.
      left. repeat split. exact B58.
  - intros Hhas. unfold has_host in Hhas. urec. apply Hh. intros E. rewrite E in Hhas. discriminate.
Qed.

(* the query / fragment tail of a file record *)
Lemma file_tail_wf ovr st s he hi rem s4 qs fs :
  wf_b (file_url s 7 he hi None None) = true /\ host_text_ok (file_url s 7 he hi None None) ->
  parse_query_and_fragment ovr CUrlParser st 4 s rem = POk (s4, qs, fs) ->
  wf_b (file_url s4 7 he hi qs fs) = true /\ host_text_ok (file_url s4 7 he hi qs fs).
Proof.
  intros [W HT] Ep. split.
  - exact (pqf_wf ovr st 4 (file_url s 7 he hi None None) rem s4 qs fs W eq_refl eq_refl Ep).
  - exact (pqf_ht ovr st 4 (file_url s 7 he hi None None) rem s4 qs fs W HT Ep).
Qed.

Lemma file_css_pre t : nfirstn 7 (s_file_css ++ t) = s_file_css.
Proof. apply (nfirstn_app_exact s_file_css t). Qed.

(* a serialization that begins with "file://" t, t ending at he *)
Lemma file_text_split s he t : nfirstn he s = s_file_css ++ t -> he <= nlen s ->
  he = 7 + nlen t /\ nfirstn 7 s = s_file_css /\ nfirstn (he - 7) (nskipn 7 s) = t.
Proof.
  intros P L.
  assert (he = 7 + nlen t) as Lt by (rewrite <- (nlen_nfirstn he s L) at 1; rewrite P, nlen_app; reflexivity).
  split; [exact Lt|]. split.
  - rewrite <- (nfirstn_nfirstn 7 he s) by lia. rewrite P. apply file_css_pre.
  - rewrite <- (nfirstn_nskipn he s), P, <- app_assoc. change 7 with (nlen s_file_css) at 2.
    rewrite nskipn_app_exact. replace (he - 7) with (nlen t) by lia. apply nfirstn_app_exact.
Qed.

Section Arms.
Variable dbg : bool.
Variable hp hpo : list N -> result host.
Variable hd : host -> list N.
Variable ovr : option (list N -> list N).
Hypothesis HW : HostWf hp hpo hd.

Lemma pfh_shape ser l ser1 flag hi rem :
  parse_file_host hp hd ser l = POk (ser1, flag, hi, rem) ->
  (ser1 = ser /\ hi = HI_None)
  \/ (exists h, h <> HDomain [] /\ host_text_wf (hd h) /\ ser1 = ser ++ hd h /\ hi = hi_of_host h /\ flag = true).
Proof using HW.
  destruct HW as (W1 & _ & W3). unfold parse_file_host. destruct (file_host l) as [t rm].
  destruct t as [|c t']; [intros H; inversion H; subst; left; split; reflexivity|].
  destruct (hp (c :: t')) as [h|e] eqn:Eh; cbn [of_result pbind]; [|discriminate].
  assert (POk (ser ++ hd h, true, hi_of_host h, rm) = POk (ser1, flag, hi, rem) ->
          (ser1 = ser /\ hi = HI_None)
          \/ (exists h0, h0 <> HDomain [] /\ host_text_wf (hd h0) /\ ser1 = ser ++ hd h0 /\ hi = hi_of_host h0 /\ flag = true)) as Hgen.
  { intros H. inversion H; subst. destruct (host_eq_dec_empty h) as [->|Hne].
    - left. rewrite W3, app_nil_r. split; reflexivity.
    - right. exists h. split; [exact Hne|]. split; [exact (W1 _ _ Eh Hne)|]. repeat split. }
  destruct h as [d|a|p]; [|exact Hgen|exact Hgen].
  destruct (list_eqb d s_localhost); [|exact Hgen].
  intros H. inversion H; subst. left. split; reflexivity.
Qed.

Lemma hi_of_nonempty h : h <> HDomain [] -> hi_of_host h <> HI_None.
Proof using. intros Hne E. apply Hne. apply hi_none_empty. exact E. Qed.

(* a reference that keeps the front of the base b: "", "?q", "#f", or a new path behind path_start b *)
Inductive base_arm (b u : url) : Prop :=
| BA_same : u = url_with b (b_before_fragment b) (query_start b) None -> base_arm b u
| BA_query st se l s qs fs :
    parse_query_and_fragment ovr CUrlParser st se (b_before_query b) l = POk (s, qs, fs) ->
    u = url_with b s qs fs -> base_arm b u
| BA_fragment l : fragment_only b l = POk u -> base_arm b u
| BA_path st s rem :
    agree_pre (path_start b) (ser b) s -> nnth s (path_start b) = Some 47 ->
    forallb no_qh (nskipn (path_start b) s) = true ->
    with_query_and_fragment ovr CUrlParser st (scheme_end b) (username_end b) (host_start b) (host_end b)
      (hosti b) (port b) (path_start b) s rem = POk u -> base_arm b u.

(* the host kind and host text a file state writes behind "file://": none, those of a host Host::parse returned,
   or those of the file base *)
Inductive fh_arm (base : option url) : host_internal -> list N -> Prop :=
| FH_none : fh_arm base HI_None []
| FH_parsed h : h <> HDomain [] -> host_text_wf (hd h) -> fh_arm base (hi_of_host h) (hd h)
| FH_base b : base = Some b -> st_is_file (scheme_type_of (b_scheme b)) = true -> has_host b = true ->
    fh_arm base (hosti b) (piece b (host_start b) (host_end b)).

Inductive parse_arm (base : option url) (u : url) : Prop :=
| PA_authority st se ser0 l :
    scheme_pre_ok se ser0 -> st_is_file st = false -> scheme_type_of (nfirstn se ser0) = st ->
    after_double_slash dbg hp hpo hd ovr CUrlParser st se ser0 l = POk u -> parse_arm base u
| PA_no_authority se ser0 s rem :
    scheme_pre_ok se ser0 -> scheme_type_of (nfirstn se ser0) = STNotSpecial ->
    agree_pre (se + 1) ser0 s -> se + 1 <= nlen s -> forallb no_qh (nskipn (se + 1) s) = true ->
    with_query_and_fragment ovr CUrlParser STNotSpecial se (se + 1) (se + 1) (se + 1) HI_None None (se + 1) s rem
      = POk u -> parse_arm base u
| PA_base b : base = Some b -> base_arm b u -> parse_arm base u
| PA_file st s he hi t rem s4 qs fs :
    nfirstn he s = s_file_css ++ t -> fh_arm base hi t ->
    nnth s he = Some 47 -> forallb no_qh (nskipn he s) = true ->
    parse_query_and_fragment ovr CUrlParser st 4 s rem = POk (s4, qs, fs) ->
    u = file_url s4 7 he hi qs fs -> parse_arm base u.

Lemma parse_arm_no_base base u : parse_arm None u -> parse_arm base u.
Proof using.
  intros [st se ser0 l Hs Hnf Est H | se ser0 s rem Hs Est A L Q H | b E _ | st s he hi t rem s4 qs fs P F C D Hq E].
  - exact (PA_authority base u st se ser0 l Hs Hnf Est H).
  - exact (PA_no_authority base u se ser0 s rem Hs Est A L Q H).
  - discriminate E.
  - apply (PA_file base u st s he hi t rem s4 qs fs P); try assumption.
    destruct F as [|h Hne Hwf|b E0 _ _]; [apply FH_none | apply FH_parsed; assumption | discriminate E0].
Qed.

Lemma parse_relative_arm st b l u : wf_b b = true -> st_is_file st = false -> scheme_type_of (b_scheme b) = st ->
  nnth (ser b) (scheme_end b + 1) = Some 47 ->
  parse_relative dbg hp hpo hd ovr CUrlParser st b l = POk u -> parse_arm (Some b) u.
Proof using.
  intros W Hnf Est Hs. destruct (wf_scheme_facts b W) as (S1 & S2 & S3). pose proof (path_start_le_len b W) as PL.
  assert (forall s rem, agree_pre (path_start b) (ser b) s -> nnth s (path_start b) = Some 47 ->
            forallb no_qh (nskipn (path_start b) s) = true ->
            with_query_and_fragment ovr CUrlParser st (scheme_end b) (username_end b) (host_start b) (host_end b)
              (hosti b) (port b) (path_start b) s rem = POk u -> parse_arm (Some b) u) as Hpath.
  { intros s rem A C D H. exact (PA_base _ u b eq_refl (BA_path b u st s rem A C D H)). }
  unfold parse_relative, inp_split_first. destruct (inp_next l) as [[c r]|] eqn:En.
  2:{ intros H. inversion H; subst u. exact (PA_base _ _ b eq_refl (BA_same b _ eq_refl)). }
  assert (inp_is_empty l = false) as He by (unfold inp_is_empty; rewrite En; reflexivity).
  destruct (c =? 63).
  { intros H. pb H a Ha. destruct a as [[s qs] fs]. inversion H; subst u.
    exact (PA_base _ _ b eq_refl (BA_query b _ st _ l s qs fs Ha eq_refl)). }
  destruct (c =? 35); [intros H; exact (PA_base _ u b eq_refl (BA_fragment b u l H))|].
  destruct ((c =? 47) || (c =? 92) && st_is_special st).
  - destruct (inp_count_matching (fun d => (d =? 47) || (d =? 92) && st_is_special st) l) as [slashes remaining].
    destruct (2 <=? slashes).
    + cbv zeta. intros H. pb H x Hx.
      assert (scheme_pre_ok (scheme_end b) (nfirstn (scheme_end b + 1) (ser b))) as Hpre.
      { pose proof (wf_b_iff b) as [Hi _]. destruct (Hi W) as ((_ & (c0 & Sc & Sa) & S4 & _) & _).
        apply byte_eqb_nnth in S2. split; [exact S1|]. split; [|split; [|split]].
        - exists c0. split; [|exact Sa]. rewrite nnth_nfirstn by lia. exact Sc.
        - rewrite nfirstn_nfirstn by lia. exact S4.
        - rewrite nnth_nfirstn by lia. exact S2.
        - apply nlen_nfirstn. lia. }
      assert (scheme_type_of (nfirstn (scheme_end b) (nfirstn (scheme_end b + 1) (ser b))) = st) as Est'
        by (rewrite nfirstn_nfirstn by lia; exact Est).
      destruct (negb (st_is_special st)); [destruct (inp_split_prefix_str s_ss l)|];
        exact (PA_authority _ u st _ _ _ Hpre Hnf Est' H).
    + cbv zeta. intros H. pb H a Ha. destruct a as [[s hh] rem].
      assert (nlen (nfirstn (path_start b) (ser b)) = path_start b) as La by (apply nlen_nfirstn; exact PL).
      set (P0 := nfirstn (path_start b) (ser b)) in *.
      assert (path_start b + 1 <= nlen (P0 ++ [47])) as G1 by (rewrite nlen_app, La; change (nlen [47]) with 1; lia).
      assert (nnth (P0 ++ [47]) (path_start b) = Some 47) as G2 by (rewrite <- La; apply nnth_last).
      assert (forallb no_qh (nskipn (path_start b) (P0 ++ [47])) = true) as G3
        by (rewrite <- La; rewrite nskipn_app_exact; reflexivity).
      destruct (parse_path_shape dbg st true (path_start b) (P0 ++ [47]) r s hh rem Hnf G1 G2 G3 Ha) as (A & _ & C & D & _).
      apply (Hpath s rem); [|exact C|exact D|exact H].
      eapply agree_pre_trans; [apply agree_pre_nfirstn; exact PL | eapply agree_pre_le; [exact A | lia]].
  - cbv zeta. intros H. pb H s1 Hs1.
    destruct (pop_base_shape hp hpo st b l s1 W Hnf Hs He Hs1) as (J1 & J2 & J3 & J4).
    set (s2 := if (nlen s1 =? path_start b) && (st_is_special (scheme_type_of (b_scheme b)) || negb (inp_is_empty l))
               then s1 ++ [47] else s1) in *.
    pb H a Ha. destruct a as [[s3 hh] rem].
    (* the path state sees the input behind a leading '/', else all of it *)
    assert (exists X, parse_path dbg CUrlParser st true (path_start b) s2 X = POk (s3, hh, rem)) as [X EX]
      by (rewrite match47 in Ha; destruct (c =? 47); eexists; exact Ha).
    destruct (parse_path_shape dbg st true (path_start b) s2 X s3 hh rem Hnf J2 J3 J4 EX) as (A & _ & C & D & _).
    apply (Hpath s3 rem); [|exact C|exact D|exact H].
    eapply agree_pre_trans; [exact J1 | eapply agree_pre_le; [exact A | lia]].
Qed.

Lemma file_fresh_arm base st hh l u :
  (' (s2, _, rem) <~ parse_path dbg CUrlParser STFile hh 7 (s_file_css ++ [47]) l ;;
   ' (s3, qs, fs) <~ parse_query_and_fragment ovr CUrlParser st 4 s2 rem ;;
   POk (file_url s3 7 7 HI_None qs fs)) = POk u -> parse_arm base u.
Proof using.
  intros H. pb H a Ha. destruct a as [[s2 h2] rem]. pb H c Hc. destruct c as [[s3 qs] fs]. inversion H; subst u.
  destruct (parse_path_shape_file dbg hh 7 (s_file_css ++ [47]) l s2 h2 rem ltac:(vm_compute; discriminate) eq_refl Ha)
    as (A & _ & C & D & _).
  apply (PA_file base _ st s2 7 HI_None [] rem s3 qs fs);
    [rewrite A; reflexivity | apply FH_none | exact C | exact D | exact Hc | reflexivity].
Qed.

Theorem parse_file_arm st base_file l u :
  match base_file with
  | Some b => wf_b b = true /\ st_is_file (scheme_type_of (b_scheme b)) = true
  | None => True
  end ->
  parse_file dbg hp hd ovr CUrlParser st base_file l = POk u -> parse_arm base_file u.
Proof using HW.
  intros Hb. unfold parse_file. destruct (inp_split_first l) as [first_char after_first] eqn:Esf.
  destruct (match first_char with Some c => is_slash_or_bslash c | None => false end) eqn:Efs.
  - destruct (inp_split_first after_first) as [next_char after_next].
    destruct (match next_char with Some c => is_slash_or_bslash c | None => false end).
    + (* "//" : file host *)
      intros H. pb H a Ha. destruct a as [[[ser1 flag] hi] remaining].
      pb H he Hhe. apply to_u32_inv in Hhe. destruct Hhe as [-> _]. cbv zeta in H.
      pb H b Hb2. destruct b as [[ser2 hh] rem2].
      assert (agree_pre (nlen ser1) ser1 ser2 /\ nnth ser2 (nlen ser1) = Some 47
              /\ forallb no_qh (nskipn (nlen ser1) ser2) = true) as (A & C & D).
      { destruct flag.
        - destruct (parse_path_start_shape_file _ _ _ _ _ _ _ Hb2) as (A & _ & C & D & _). repeat split; assumption.
        - destruct (parse_path_shape_file dbg _ (nlen ser1) (ser1 ++ [47]) _ _ _ _
                      ltac:(rewrite nlen_app; lia) ltac:(rewrite nskipn_app_exact; reflexivity) Hb2) as (A & _ & C & D & _).
          split; [eapply agree_pre_trans; [apply agree_pre_app_r | exact A]|]. split; assumption. }
      assert (exists t, ser1 = s_file_css ++ t /\ fh_arm base_file hi t) as (t & -> & Ft).
      { destruct (pfh_shape _ _ _ _ _ _ Ha) as [(-> & ->)|(h & Hne & Hwf & -> & -> & _)].
        - exists []. split; [rewrite app_nil_r; reflexivity | apply FH_none].
        - exists (hd h). split; [reflexivity | apply FH_parsed; assumption]. }
      assert (7 <= nlen (s_file_css ++ t)) as L7 by (rewrite nlen_app; change (nlen s_file_css) with 7; lia).
      destruct (negb hh); cbv beta iota zeta in H; pb H c Hc; destruct c as [[ser4 qs] fs]; inversion H; subst u.
      * (* the path state dropped the host *)
        rewrite (pre_firstn _ _ _ 7 A L7), file_css_pre in Hc.
        apply (PA_file base_file _ st (s_file_css ++ nskipn (nlen (s_file_css ++ t)) ser2) 7 HI_None [] rem2 ser4 qs fs);
          [| apply FH_none | | | exact Hc | reflexivity].
        -- rewrite app_nil_r. apply file_css_pre.
        -- rewrite nnth_app_ge by (change (nlen s_file_css) with 7; lia). change (nlen s_file_css) with 7.
           rewrite N.sub_diag, nnth_nskipn, N.add_0_r. exact C.
        -- change 7 with (nlen s_file_css) at 1. rewrite nskipn_app_exact. exact D.
      * apply (PA_file base_file _ st ser2 (nlen (s_file_css ++ t)) hi t rem2 ser4 qs fs);
          [rewrite A; apply nfirstn_all; lia | exact Ft | exact C | exact D | exact Hc | reflexivity].
    + (* a single slash: the host (or drive letter) of the base, then the path *)
      set (T := if negb (starts_with_wdl_segment after_first)
                then match base_file with
                     | Some base =>
                         match base_first_segment base with
                         | Some seg =>
                             if is_normalized_wdl seg then (s_file_css ++ [47] ++ seg, 7, HI_None)
                             else match host_str base with
                                  | Some (Some hs) => (s_file_css ++ hs, nlen (s_file_css ++ hs), hosti base)
                                  | _ => (s_file_css, 7, HI_None)
                                  end
                         | None => (s_file_css, 7, HI_None)
                         end
                     | None => (s_file_css, 7, HI_None)
                     end
                else (s_file_css, 7, HI_None)).
      assert (let '(ser1, he, hi) := T in
              he <= nlen ser1 /\ forallb no_qh (nskipn he ser1) = true
              /\ exists t, nfirstn he ser1 = s_file_css ++ t /\ fh_arm base_file hi t) as HT.
      { assert (7 <= nlen s_file_css /\ forallb no_qh (nskipn 7 s_file_css) = true
                /\ exists t, nfirstn 7 s_file_css = s_file_css ++ t /\ fh_arm base_file HI_None t) as Hplain
          by (split; [vm_compute; discriminate | split; [reflexivity | exists []; split; [reflexivity | apply FH_none]]]).
        subst T. destruct (negb (starts_with_wdl_segment after_first)); [|exact Hplain].
        destruct base_file as [base|]; [|exact Hplain]. destruct Hb as [Wb Fb].
        destruct (base_first_segment base) as [seg|]; [|exact Hplain].
        destruct (is_normalized_wdl seg) eqn:Ew.
        - (* the drive letter of the base: seg = [letter; ':'] *)
          assert (exists a, seg = [a; 58] /\ is_alpha a = true) as (a & -> & Ha).
          { unfold is_normalized_wdl, is_wdl, starts_with_wdl in Ew. destruct seg as [|a [|b [|c r]]]; try discriminate.
            apply andb_true_iff in Ew. destruct Ew as [Ew Eb]. apply N.eqb_eq in Eb. subst b.
            exists a. split; [reflexivity|]. cbn in Ew. rewrite andb_true_r in Ew. apply andb_true_iff in Ew. tauto. }
          split; [vm_compute; discriminate|]. split.
          + change 7 with (nlen s_file_css). rewrite nskipn_app_exact.
            assert (no_qh a = true) as Hna by (unfold is_alpha, is_upper, is_lower, no_qh in *; lia).
            cbn [app forallb]. rewrite Hna. reflexivity.
          + exists []. split; [rewrite app_nil_r; apply file_css_pre | apply FH_none].
        - rewrite (host_str_eval base Wb). destruct (has_host base) eqn:Hh; [|exact Hplain]. cbn [pidx].
          split; [lia|]. split; [rewrite nskipn_all by lia; reflexivity|].
          eexists. split; [apply nfirstn_all; lia | exact (FH_base _ base eq_refl Fb Hh)]. }
      destruct T as [[ser1 he] hi]. destruct HT as (Hle & Hq & t & P & Ft).
      intros H. pb H a Ha. destruct a as [[ser2 hh] remaining]. pb H c Hc. destruct c as [[ser3 qs] fs]. inversion H; subst u.
      destruct (parse_path_shape_file dbg false he ser1 l ser2 hh remaining Hle Hq Ha) as (A & _ & C & D & _).
      apply (PA_file _ _ st ser2 he hi t remaining ser3 qs fs);
        [rewrite A; exact P | exact Ft | exact C | exact D | exact Hc | reflexivity].
  - destruct base_file as [base|]; [|apply file_fresh_arm].
    destruct Hb as [Wb Fb].
    destruct first_char as [c|].
    2:{ intros H. inversion H; subst u. exact (PA_base _ _ base eq_refl (BA_same base _ eq_refl)). }
    destruct (c =? 63).
    { intros H. pb H a Ha. destruct a as [[s qs] fs]. inversion H; subst u.
      exact (PA_base _ _ base eq_refl (BA_query base _ st _ l s qs fs Ha eq_refl)). }
    destruct (c =? 35); [intros H; exact (PA_base _ u base eq_refl (BA_fragment base u l H))|].
    destruct (negb (starts_with_wdl_segment l)); [|apply file_fresh_arm].
    (* path-relative: the path of the base without its last segment, then the input *)
    intros H. pb H s1 Hs1. pb H a Ha. destruct a as [[s2 hh] rem].
    destruct (bq_shape base Wb) as (Ebq & P1 & P2). pose proof (path_start_le_len base Wb) as PL.
    pose proof (qf_facts_of base Wb) as (_ & _ & _ & Q4 & _).
    assert (nlen (nfirstn (path_start base) (ser base)) = path_start base) as Lp by (apply nlen_nfirstn; exact PL).
    assert (PInv (path_start base) (path_start base) (nfirstn (path_start base) (ser base)) (b_before_query base)) as I0.
    { rewrite Ebq. split; [apply nfirstn_nfirstn; exact P1|].
      replace (path_end base) with (path_start base + (path_end base - path_start base)) by lia.
      rewrite nskipn_nfirstn_comm. exact Q4. }
    pose proof (pinv_shorten_path (path_start base) (path_start base) (nfirstn (path_start base) (ser base))
                  (N.le_refl _) ltac:(lia) Lp STFile _ _ Hs1 I0) as I1.
    pose proof (pinv_len _ _ _ (N.le_refl _) ltac:(lia) Lp s1 I1) as L1. destruct I1 as [J1 J2].
    destruct (parse_path_shape_file dbg true (path_start base) s1 l s2 hh rem L1 J2 Ha) as (A & _ & C & D & _).
    apply (PA_base _ u base eq_refl), (BA_path base u STFile s2 rem); [|exact C|exact D|exact H].
    eapply agree_pre_trans; [exact J1 | exact A].
Qed.

Lemma parse_non_special_arm base se ser0 l u : scheme_pre_ok se ser0 ->
  scheme_type_of (nfirstn se ser0) = STNotSpecial ->
  parse_non_special dbg hp hpo hd ovr CUrlParser STNotSpecial se ser0 l = POk u -> parse_arm base u.
Proof using.
  intros Hs Est. pose proof Hs as (_ & _ & _ & _ & S5). unfold parse_non_special.
  destruct (inp_split_prefix_str s_ss l) as [rm|]; [exact (PA_authority base u STNotSpecial se ser0 rm Hs eq_refl Est)|].
  intros H. pb H ps Hps. apply to_u32_inv in Hps. destruct Hps as [-> _].
  pb H a Ha. destruct a as [s rem]. destruct (inp_split_prefix_char 47 l) as [rm|].
  - pb Ha c Hc. destruct c as [[s' hh] rem']. inversion Ha; subst s' rem'. clear Ha.
    destruct (parse_path_shape dbg STNotSpecial false (nlen ser0) (ser0 ++ [47]) rm s hh rem eq_refl
                ltac:(rewrite nlen_app; change (nlen [47]) with 1; lia) (nnth_last ser0 47)
                ltac:(rewrite nskipn_app_exact; reflexivity) Hc) as (A & B & _ & D & _).
    rewrite S5 in *. apply (PA_no_authority base u se ser0 s rem Hs Est); [|lia|exact D|exact H].
    eapply agree_pre_trans; [rewrite <- S5; apply agree_pre_app_r | eapply agree_pre_le; [exact A | lia]].
  - destruct (cbb_path_shape l ser0) as (x & Ex & Hx). inversion Ha as [Ea]. rewrite Ea in Ex. cbn [fst] in Ex. subst s. rewrite S5 in H.
    apply (PA_no_authority base u se ser0 (ser0 ++ x) rem Hs Est); [| |rewrite <- S5, nskipn_app_exact; exact Hx|exact H].
    + rewrite <- S5. apply agree_pre_app_r.
    + rewrite nlen_app. lia.
Qed.

Theorem parse_url_arm base input u :
  match base with Some b => base_ok b = true | None => True end ->
  parse_url dbg hp hpo hd ovr base input = POk u -> parse_arm base u.
Proof using HW.
  intros Hb H.
  assert (forall b, base = Some b -> wf_b b = true /\ (st_is_special (scheme_type_of (b_scheme b)) = true ->
            nnth (ser b) (scheme_end b + 1) = Some 47)) as Hbase.
  { intros b ->. unfold base_ok in Hb. apply andb_true_iff in Hb. destruct Hb as [W Hs]. split; [exact W|].
    intros Esp. rewrite Esp in Hs. apply byte_eqb_nnth. exact Hs. }
  destruct (parse_url_case dbg hp hpo hd ovr base input u H)
    as [b l -> Hf | base_file l Hbf Hf | sch l0 l Es Est Ha | b l -> Hnf Hc Hr | sch l Es Est Hn].
  - exact (PA_base _ u b eq_refl (BA_fragment b u l Hf)).
  - destruct base_file as [b|]; [|exact (parse_arm_no_base base u (parse_file_arm STFile None l u I Hf))].
    destruct Hbf as [-> Eb]. apply (parse_file_arm STFile (Some b) l u); [|exact Hf].
    rewrite Eb. split; [exact (proj1 (Hbase b eq_refl)) | reflexivity].
  - apply (PA_authority base u STSpecialNotFile (nlen sch) (sch ++ [58]) l); [|reflexivity| |exact Ha].
    + exact (scheme_pre_of_canon sch (parse_scheme_out _ _ _ Es)).
    + rewrite nfirstn_app_exact. exact Est.
  - destruct (Hbase b eq_refl) as [W Hs]. apply (parse_relative_arm _ b l u W Hnf eq_refl); [|exact Hr].
    destruct Hc as [Hc|Hc]; [apply Hs; rewrite Hc; reflexivity|].
    rewrite (cannot_be_a_base_eval b W) in Hc. apply byte_eqb_nnth.
    destruct (byte_eqb (ser b) (scheme_end b + 1) 47); [reflexivity | discriminate Hc].
  - apply (parse_non_special_arm base (nlen sch) (sch ++ [58]) l u); [| |exact Hn].
    + exact (scheme_pre_of_canon sch (parse_scheme_out _ _ _ Es)).
    + rewrite nfirstn_app_exact. exact Est.
Qed.

(* every result of parse_url is well-formed *)
(* the host text a file state writes is empty, or a host text in the sense of host_text_ok *)
Lemma fh_arm_text base hi t :
  match base with Some b => wf_b b = true /\ host_text_ok b | None => True end -> fh_arm base hi t ->
  (hi = HI_None /\ t = []) \/ (hi <> HI_None /\ t <> [] /\ nnth t 0 <> Some 58 /\ nnth t 0 <> Some 64).
Proof using.
  intros Hb [|h Hne (T1 & T2 & T3 & _)|b -> _ Hh]; [left; split; reflexivity | right | right].
  - split; [exact (hi_of_nonempty h Hne)|]. repeat split; assumption.
  - destruct Hb as [W HT]. destruct (HT Hh) as (T1 & T2 & T3).
    pose proof (wf_host_range b W T1) as R. pose proof (path_start_le_len b W) as PL.
    split; [intros E; unfold has_host in Hh; rewrite E in Hh; discriminate|].
    assert (nnth (piece b (host_start b) (host_end b)) 0 = nnth (ser b) (host_start b)) as E0.
    { unfold piece. rewrite nnth_nfirstn by lia. rewrite nnth_nskipn, N.add_0_r. reflexivity. }
    rewrite E0. unfold byte_eqb in T2, T3.
    destruct (nnth (ser b) (host_start b)) as [c|] eqn:Ec.
    + split; [intros E; rewrite E in E0; discriminate E0|].
      split; intros E; inversion E; subst c; discriminate.
    + exfalso. unfold nnth in Ec. apply nth_error_None in Ec. unfold nlen in *. lia.
Qed.

Theorem parse_arm_wf base u :
  match base with Some b => wf_b b = true /\ host_text_ok b | None => True end ->
  parse_arm base u -> wf_b u = true /\ host_text_ok u.
Proof using HW.
  intros Hb [st se ser0 l Hs Hnf _ H | se ser0 s rem Hs _ A L Q H | b -> B | st s he hi t rem s4 qs fs P F C D Hq ->].
  - exact (ads_wf hp hpo hd HW dbg ovr st se ser0 l u Hnf Hs H).
  - apply (wqf_wf ovr STNotSpecial (mkUrl s se (se + 1) (se + 1) (se + 1) HI_None None (se + 1) None None) rem u);
      [apply (noauth_front_ok se ser0); assumption | reflexivity | reflexivity | exact H].
  - destruct Hb as [W HT]. destruct B as [-> | st se l s qs fs Hq -> | l H | st s rem A C Q H].
    + split; [apply base_cut_fragment_wf; exact W | exact (base_ht b _ _ _ W HT (bf_pre b W))].
    + split.
      * exact (pqf_wf ovr st se (url_with b (b_before_query b) None None) l s qs fs (base_cut_query_wf b W) eq_refl eq_refl Hq).
      * exact (pqf_ht ovr st se (url_with b (b_before_query b) None None) l s qs fs
                 (base_cut_query_wf b W) (base_ht b _ None None W HT (bq_pre b W)) Hq).
    + exact (fragment_only_wf b l u W HT H).
    + apply (wqf_wf ovr st (url_with b s None None) rem u); [apply base_front_ok; assumption | reflexivity | reflexivity | exact H].
  - apply (file_tail_wf ovr st s he hi rem); [|exact Hq].
    pose proof (nnth_lt _ _ _ C) as Lh. destruct (file_text_split s he t P ltac:(lia)) as (Lt & P7 & Et).
    assert (7 < he -> nnth s 7 = nnth t 0) as E7.
    { intros L. rewrite <- Et. rewrite nnth_nfirstn by lia. rewrite nnth_nskipn, N.add_0_r. reflexivity. }
    apply file_front_wf; try assumption; [lia | |];
      destruct (fh_arm_text base hi t Hb F) as [(-> & ->)|(Hn & Ht & T2 & T3)].
    + intros _. rewrite Lt. reflexivity.
    + intros E. contradiction.
    + intros X. contradiction.
    + intros _. assert (7 < he) as L by (destruct t; [contradiction | rewrite Lt, nlen_cons; lia]).
      split; [exact L|]. split; apply byte_eqb_false_of; rewrite (E7 L); assumption.
Qed.

Theorem parse_url_wf_all base input u :
  match base with Some b => base_ok b = true /\ host_text_ok b | None => True end ->
  parse_url dbg hp hpo hd ovr base input = POk u -> wf_b u = true /\ host_text_ok u.
Proof using HW.
  intros Hb H. apply (parse_arm_wf base u).
  - destruct base as [b|]; [|exact I]. destruct Hb as [Hb HT].
    unfold base_ok in Hb. apply andb_true_iff in Hb. split; [exact (proj1 Hb) | exact HT].
  - apply (parse_url_arm base input u); [|exact H]. destruct base as [b|]; [exact (proj1 Hb) | exact I].
Qed.

(* in particular when the file scheme is not involved *)
Theorem parse_url_wf base input u :
  match base with Some b => base_ok b = true /\ host_text_ok b | None => True end ->
  file_involved base input = false ->
  parse_url dbg hp hpo hd ovr base input = POk u -> wf_b u = true /\ host_text_ok u.
Proof using HW. intros Hb _. exact (parse_url_wf_all base input u Hb). Qed.
End Arms.
