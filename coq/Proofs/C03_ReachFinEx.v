(* Proofs/C03_ReachFinEx.v - non-vacuity of C03_round_trips_reach on the host MODEL (Model/Host.v with the oracle
   idna_clean): the hypotheses hold and a history of C02's ReachC4 - parse "http://1.2.3.4:81/p", quirks set_hostname
   "[::1]", set_query "k=v" -> "http://[::1]:81/p?k=v" (an IPv6 host). *)
From Coq Require Import String.
From RU Require Import Base.Prelude Model.Host Model.UrlRecord Model.Parser Proofs.C02_Reach Proofs.C02_Hist Proofs.C02_HistInst
  Proofs.C02_SetHostCanon Proofs.C02_Reach4 Proofs.C02_Reach5 Proofs.C16_RT6Model Proofs.C03_ReachEx.
Open Scope string_scope.
Open Scope N_scope.
Open Scope list_scope.

Definition mhp0 := host_parse idna_clean.

Lemma reachfin_hyps : HostOK2 mhp0 host_parse_opaque host_display /\ host_nonempty mhp0 host_parse_opaque.
Proof. split; [exact HostOK2_inhabited | exact (host_nonempty_model idna_clean)]. Qed.

Definition reachc4_example_stmt : Prop :=
  exists u, ReachC4 true mhp0 host_parse_opaque host_display u /\ ser u = B "http://[::1]:81/p?k=v".

Lemma reachc4_example : reachc4_example_stmt.
Proof.
  destruct (parse_url true mhp0 host_parse_opaque host_display None None (B "http://1.2.3.4:81/p")) as [u0| |] eqn:E0;
    [|vm_compute in E0; discriminate ..].
  assert (ReachC4 true mhp0 host_parse_opaque host_display u0) as R0.
  { apply (RC4_parse true mhp0 host_parse_opaque host_display None (B "http://1.2.3.4:81/p") u0);
      [usv_tac | vm_compute; reflexivity | left; reflexivity | exact E0]. }
  vm_compute in E0. injection E0 as <-.
  match type of R0 with ReachC4 ?d ?hp ?hpo ?hd ?u =>
    destruct (apply_op d hp hpo hd u (OQHostname (B "[::1]"))) as [u1|] eqn:E1; [|vm_compute in E1; discriminate];
    assert (nlen (ser u1) <= U32_MAX_P -> ReachC4 d hp hpo hd u1) as R1
      by (apply (RC4_step d hp hpo hd u (OQHostname (B "[::1]")) u1 R0);
          [reflexivity | cbn [op_args_ok]; usv_tac | vm_compute; reflexivity | exact E1])
  end.
  vm_compute in E1. injection E1 as <-. specialize (R1 ltac:(vm_compute; discriminate)). clear R0.
  match type of R1 with ReachC4 ?d ?hp ?hpo ?hd ?u =>
    destruct (apply_op d hp hpo hd u (OSetQuery (Some (B "k=v")))) as [u2|] eqn:E2; [|vm_compute in E2; discriminate];
    assert (nlen (ser u2) <= U32_MAX_P -> ReachC4 d hp hpo hd u2) as R2
      by (apply (RC4_step d hp hpo hd u (OSetQuery (Some (B "k=v"))) u2 R1);
          [reflexivity | cbn [op_args_ok]; usv_tac | vm_compute; reflexivity | exact E2])
  end.
  vm_compute in E2. injection E2 as <-. specialize (R2 ltac:(vm_compute; discriminate)). clear R1.
  eexists. split; [exact R2 | vm_compute; reflexivity].
Qed.
