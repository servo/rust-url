(* Proofs/C01_EqAuthSpec.v - specification side of the C01 equivalence for "scheme://authority..." with a
   non-special scheme: what the authority state (buffer, atSignSeen, passwordTokenSeen), the host
   state (insideBrackets), the port state and the path start state of Spec/Whatwg.v compute on ANY
   text after "//", as functions of that text (`sauth`), and the proof that the state machine
   computes exactly that. *)
From RU Require Import Base.Prelude Spec.Whatwg Proofs.C01_EqRun Proofs.C01_EqPathSpec.

(* the text after "//", cut as the states of the Standard cut it *)
(* end of the authority for a URL that is not special: '/', '?', '#' (or the end of the text) *)
Definition is_ae (c : N) : bool := (c =? 47) || (c =? 63) || (c =? 35).
Definition starts_ae (t : list N) : bool := match t with [] => true | c :: _ => is_ae c end.

Fixpoint a_part (t : list N) : list N :=
  match t with [] => [] | c :: r => if is_ae c then [] else c :: a_part r end.
Fixpoint a_rest (t : list N) : list N :=
  match t with [] => [] | c :: r => if is_ae c then t else a_rest r end.

(* cut at the LAST '@' *)
Fixpoint last_at (t : list N) : option (list N * list N) :=
  match t with
  | [] => None
  | c :: r => match last_at r with
              | Some (w, h) => Some (c :: w, h)
              | None => if c =? 64 then Some ([], r) else None
              end
  end.

(* (text in front of the last '@' of the authority, if any; text after it up to the end of the input) *)
Definition after_at (T : list N) : option (list N) * list N :=
  match last_at (a_part T) with
  | Some (w, h) => (Some w, h ++ a_rest T)
  | None => (None, T)
  end.

(* host state: up to the first ':' outside brackets or the end of the authority *)
Definition br_next (br : bool) (c : N) : bool := if c =? 91 then true else if c =? 93 then false else br.
Definition hs_stop (br : bool) (c : N) : bool := ((c =? 58) && negb br) || is_ae c.
Fixpoint hs_host (br : bool) (t : list N) : list N :=
  match t with
  | [] => []
  | c :: r => if hs_stop br c then [] else c :: hs_host (br_next br c) r
  end.
Fixpoint hs_rest (br : bool) (t : list N) : list N :=
  match t with
  | [] => []
  | c :: r => if hs_stop br c then t else hs_rest (br_next br c) r
  end.
(* the text after the ':' that ends the host, if that is what ends it *)
Definition port_split (X : list N) : option (list N) :=
  match X with c :: r => if c =? 58 then Some r else None | [] => None end.

(* port state: the digits, and what follows them *)
Fixpoint digits_of (t : list N) : list N :=
  match t with [] => [] | c :: r => if is_digit c then c :: digits_of r else [] end.
Fixpoint after_digits (t : list N) : list N :=
  match t with [] => [] | c :: r => if is_digit c then after_digits r else t end.

(* credentials: the first ':' splits *)
Fixpoint cr_user (w : list N) : list N :=
  match w with [] => [] | c :: r => if c =? 58 then [] else c :: cr_user r end.
Fixpoint cr_pass (w : list N) : list N :=
  match w with [] => [] | c :: r => if c =? 58 then r else cr_pass r end.

Definition is_nil {A} (l : list A) : bool := match l with [] => true | _ => false end.

(* what the states compute *)
Definition cred_of (W : option (list N)) (u : spec_url) : spec_url :=
  match W with Some w => snd (authority_credentials w false u) | None => u end.

(* path start state and what follows it, on a text that is empty or starts with '/', '?' or '#' *)
Definition sauth_tail (u : spec_url) (X : list N) : spec_url :=
  match X with
  | c :: r => if c =? 47 then tail_url (set_path u (SPList (fst (spath r [] [])))) (snd (spath r [] []))
              else tail_url u X
  | [] => u
  end.

Section SAuth.
Variable shp : bool -> list N -> option spec_host.

(* port state on the text PR after "host:"; None = failure *)
Definition sauth_port (u : spec_url) (PR : list N) : option spec_url :=
  let d := digits_of PR in
  let X := after_digits PR in
  if negb (starts_ae X) then None
  else if is_nil d then Some (sauth_tail u X)
  else if 65535 <? decimal_value d then None
  else Some (sauth_tail (set_port u (Some (decimal_value d))) X).

(* host state on the text HR after the credentials *)
Definition sauth_host (u : spec_url) (HR : list N) : option spec_url :=
  let Hh := hs_host false HR in
  match port_split (hs_rest false HR) with
  | Some PR =>
      if is_nil Hh then None else
      match host_parsing shp true Hh with
      | None => None
      | Some sh => sauth_port (set_host u (Some sh)) PR
      end
  | None =>
      match host_parsing shp true Hh with
      | None => None
      | Some sh => Some (sauth_tail (set_host u (Some sh)) (hs_rest false HR))
      end
  end.

(* the text T after "scheme://"; None = failure *)
Definition sauth (sch T : list N) : option spec_url :=
  let '(W, HR) := after_at T in
  if opt_is_some W && starts_ae HR then None
  else sauth_host (cred_of W (set_scheme empty_url sch)) HR.

End SAuth.

(* the pieces of a text the class recogniser looks at *)
(* the string the host parser is applied to (if the states get that far) *)
Definition auth_host_text (T : list N) : list N := hs_host false (snd (after_at T)).
(* the text the path start state sees (if the states get that far) *)
Definition auth_path_text (T : list N) : list N :=
  match port_split (hs_rest false (snd (after_at T))) with
  | Some PR => after_digits PR
  | None => hs_rest false (snd (after_at T))
  end.
(* a valid port number directly followed by '\' *)
Definition auth_port_bslash (T : list N) : bool :=
  match port_split (hs_rest false (snd (after_at T))) with
  | Some PR => (decimal_value (digits_of PR) <=? 65535) && starts_with_cp 92 (after_digits PR)
  | None => false
  end.

(* the cuts, with the end of the authority left open *)
(* `stop` is `is_ae`, or `is_aes` of Proofs/C01_EqSpSpec.v for a special URL, where '\' ends the authority too.
   The functions above and their special twins ARE these at `is_ae` / `is_aes` (equal by computation: same
   fixpoint bodies), so a statement about `cut_part stop` is used as it stands for `a_part` and for `as_part`. *)
Section Cuts.
Variable stop : N -> bool.

Definition cut_starts (t : list N) : bool := match t with [] => true | c :: _ => stop c end.
Fixpoint cut_part (t : list N) : list N :=
  match t with [] => [] | c :: r => if stop c then [] else c :: cut_part r end.
Fixpoint cut_rest (t : list N) : list N :=
  match t with [] => [] | c :: r => if stop c then t else cut_rest r end.
Definition cut_at (T : list N) : option (list N) * list N :=
  match last_at (cut_part T) with
  | Some (w, h) => (Some w, h ++ cut_rest T)
  | None => (None, T)
  end.
Definition host_stop (br : bool) (c : N) : bool := ((c =? 58) && negb br) || stop c.
Fixpoint host_part (br : bool) (t : list N) : list N :=
  match t with
  | [] => []
  | c :: r => if host_stop br c then [] else c :: host_part (br_next br c) r
  end.
Fixpoint host_rest (br : bool) (t : list N) : list N :=
  match t with
  | [] => []
  | c :: r => if host_stop br c then t else host_rest (br_next br c) r
  end.

Lemma cut_part_rest t : cut_part t ++ cut_rest t = t.
Proof. induction t as [|c r IH]; [reflexivity|]. cbn [cut_part cut_rest]. destruct (stop c); [reflexivity|]. cbn [app]. rewrite IH. reflexivity. Qed.

Lemma cut_rest_starts t : cut_starts (cut_rest t) = true.
Proof. induction t as [|c r IH]; [reflexivity|]. cbn [cut_rest]. destruct (stop c) eqn:E; [exact E | exact IH]. Qed.

Lemma cut_part_no_stop t : forallb (fun c => negb (stop c)) (cut_part t) = true.
Proof. induction t as [|c r IH]; [reflexivity|]. cbn [cut_part]. destruct (stop c) eqn:E; [reflexivity|]. cbn [forallb]. rewrite E, IH. reflexivity. Qed.

Lemma cut_starts_app h t : forallb (fun c => negb (stop c)) h = true -> cut_starts t = true ->
  cut_starts (h ++ t) = match h with [] => true | _ => false end.
Proof.
  intros H1 H2. destruct h as [|c r]; [exact H2|]. cbn [app cut_starts].
  cbn [forallb] in H1. apply andb_true_iff in H1. destruct H1 as [H1 _]. apply negb_true_iff in H1. exact H1.
Qed.

Lemma host_rest_head t : forall br, match host_rest br t with
                                    | [] => True
                                    | c :: _ => stop c = true \/ (c =? 58) = true
                                    end.
Proof.
  induction t as [|c r IH]; intros br; [exact I|]. cbn [host_rest]. destruct (host_stop br c) eqn:E; [|apply IH].
  unfold host_stop in E. apply orb_true_iff in E. destruct E as [E|E]; [right | left; exact E].
  apply andb_true_iff in E. tauto.
Qed.

Lemma host_part_rest t : forall br, host_part br t ++ host_rest br t = t.
Proof.
  induction t as [|c r IH]; intros br; [reflexivity|]. cbn [host_part host_rest].
  destruct (host_stop br c); [reflexivity|]. cbn [app]. rewrite IH. reflexivity.
Qed.

End Cuts.

(* elementary facts about the cuts *)
Lemma a_part_rest t : a_part t ++ a_rest t = t.
Proof. exact (cut_part_rest is_ae t). Qed.

Lemma a_rest_starts t : starts_ae (a_rest t) = true.
Proof. exact (cut_rest_starts is_ae t). Qed.

Lemma a_part_no_ae t : forallb (fun c => negb (is_ae c)) (a_part t) = true.
Proof. exact (cut_part_no_stop is_ae t). Qed.

Lemma last_at_split A w h : last_at A = Some (w, h) -> A = w ++ 64 :: h.
Proof.
  revert w h. induction A as [|c r IH]; intros w h H; [discriminate|]. cbn [last_at] in H.
  destruct (last_at r) as [[w' h']|].
  - inversion H; subst. cbn [app]. rewrite (IH w' h eq_refl). reflexivity.
  - destruct (c =? 64) eqn:E; [|discriminate]. inversion H; subst. apply N.eqb_eq in E. subst c. reflexivity.
Qed.

Lemma last_at_none_no_at A : last_at A = None -> forallb (fun c => negb (c =? 64)) A = true.
Proof.
  induction A as [|c r IH]; intros H; [reflexivity|]. cbn [last_at] in H.
  destruct (last_at r) as [[w' h']|]; [discriminate|]. destruct (c =? 64) eqn:E; [discriminate|].
  cbn [forallb]. rewrite E, (IH eq_refl). reflexivity.
Qed.

Lemma last_at_tail_no_at A w h : last_at A = Some (w, h) -> forallb (fun c => negb (c =? 64)) h = true.
Proof.
  revert w h. induction A as [|c r IH]; intros w h H; [discriminate|]. cbn [last_at] in H.
  destruct (last_at r) as [[w' h']|] eqn:E.
  - inversion H; subst. exact (IH w' h eq_refl).
  - destruct (c =? 64); [|discriminate]. inversion H; subst. apply last_at_none_no_at. exact E.
Qed.

Lemma starts_ae_app h t : forallb (fun c => negb (is_ae c)) h = true -> starts_ae t = true ->
  starts_ae (h ++ t) = is_nil h.
Proof. exact (cut_starts_app is_ae h t). Qed.

Lemma firstn_len_sub {A} (p s : list A) : firstn (length (p ++ s) - length s) (p ++ s) = p.
Proof.
  rewrite app_length. replace (length p + length s - length s)%nat with (length p) by lia.
  rewrite firstn_app, Nat.sub_diag, firstn_all. cbn [firstn]. apply app_nil_r.
Qed.

Lemma list_eqb_nil l : list_eqb l [] = is_nil l.
Proof. destruct l; reflexivity. Qed.

(* credentials in closed form *)
Lemma ac_true w : forall u, authority_credentials w true u = (true, set_password u (su_password u ++ upe in_userinfo_set w)).
Proof.
  induction w as [|c r IH]; intros u.
  - cbn [authority_credentials upe utf8_percent_encode flat_map]. rewrite app_nil_r. destruct u; reflexivity.
  - cbn [authority_credentials negb]. rewrite andb_false_r. rewrite IH. rewrite upe_cons.
    destruct u as [x1 x2 x3 x4 x5 x6 x7 x8]. cbn [set_password su_password su_scheme su_username su_host su_port su_path su_query su_fragment].
    rewrite app_assoc. reflexivity.
Qed.

Lemma ac_false w : forall u, snd (authority_credentials w false u)
  = set_password (set_username u (su_username u ++ upe in_userinfo_set (cr_user w)))
                 (su_password u ++ upe in_userinfo_set (cr_pass w)).
Proof.
  induction w as [|c r IH]; intros u.
  - cbn [authority_credentials cr_user cr_pass upe utf8_percent_encode flat_map snd]. rewrite !app_nil_r. destruct u; reflexivity.
  - cbn [authority_credentials negb cr_user cr_pass]. rewrite andb_true_r. destruct (c =? 58) eqn:E.
    + rewrite ac_true. cbn [snd upe utf8_percent_encode flat_map]. rewrite app_nil_r. destruct u; reflexivity.
    + rewrite IH. rewrite upe_cons. destruct u as [x1 x2 x3 x4 x5 x6 x7 x8].
      cbn [set_password set_username su_password su_scheme su_username su_host su_port su_path su_query su_fragment].
      rewrite app_assoc. reflexivity.
Qed.

Lemma ac_app x : forall y pw u,
  authority_credentials (x ++ y) pw u
  = authority_credentials y (fst (authority_credentials x pw u)) (snd (authority_credentials x pw u)).
Proof.
  induction x as [|c r IH]; intros y pw u; [reflexivity|]. cbn [app authority_credentials].
  destruct ((c =? 58) && negb pw); apply IH.
Qed.

(* the "%40" the authority state puts in front of the buffer stands for the '@' it has consumed *)
Lemma ac_at x pw u : authority_credentials ([37; 52; 48] ++ x) pw u = authority_credentials (64 :: x) pw u.
Proof.
  cbn [app authority_credentials]. replace (37 =? 58) with false by reflexivity. replace (52 =? 58) with false by reflexivity.
  replace (48 =? 58) with false by reflexivity. replace (64 =? 58) with false by reflexivity. cbn [andb].
  assert (utf8_percent_encode_cp in_userinfo_set 37 = [37]) as -> by reflexivity.
  assert (utf8_percent_encode_cp in_userinfo_set 52 = [52]) as -> by reflexivity.
  assert (utf8_percent_encode_cp in_userinfo_set 48 = [48]) as -> by reflexivity.
  assert (utf8_percent_encode_cp in_userinfo_set 64 = [37; 52; 48]) as -> by (vm_compute; reflexivity).
  f_equal. destruct pw; destruct u as [x1 x2 x3 x4 x5 x6 x7 x8];
    cbn [set_password set_username su_password su_scheme su_username su_host su_port su_path su_query su_fragment];
    rewrite <- !app_assoc; reflexivity.
Qed.

Lemma ac_scheme w : forall pw u, su_scheme (snd (authority_credentials w pw u)) = su_scheme u.
Proof.
  induction w as [|c r IH]; intros pw u; [reflexivity|]. cbn [authority_credentials].
  destruct ((c =? 58) && negb pw); [apply IH|]. rewrite IH. destruct pw; reflexivity.
Qed.

Lemma ac_rest w : forall pw u, let u' := snd (authority_credentials w pw u) in
  su_host u' = su_host u /\ su_port u' = su_port u /\ su_path u' = su_path u
  /\ su_query u' = su_query u /\ su_fragment u' = su_fragment u.
Proof.
  induction w as [|c r IH]; intros pw u; [cbn; repeat split|]. cbn [authority_credentials].
  destruct ((c =? 58) && negb pw); [apply IH|].
  cbv zeta. destruct (IH pw (if pw then set_password u (su_password u ++ utf8_percent_encode_cp in_userinfo_set c)
                             else set_username u (su_username u ++ utf8_percent_encode_cp in_userinfo_set c)))
    as (A & B & C & D & E).
  rewrite A, B, C, D, E. destruct pw; repeat split.
Qed.

(* the authority state as a function of the text: Some (buffer, url) = go on with the host state at the start of
   buffer; None = failure *)
Fixpoint sa_run (t buf : list N) (a pw : bool) (u : spec_url) : option (list N * spec_url) :=
  match t with
  | [] => if a && is_nil buf then None else Some (buf, u)
  | c :: r =>
      if c =? 64 then
        sa_run r [] true
               (fst (authority_credentials (if a then [37; 52; 48] ++ buf else buf) pw u))
               (snd (authority_credentials (if a then [37; 52; 48] ++ buf else buf) pw u))
      else if is_ae c then (if a && is_nil buf then None else Some (buf, u))
      else sa_run r (buf ++ [c]) a pw u
  end.

Lemma is_ae_not_at c : is_ae c = true -> (c =? 64) = false.
Proof. unfold is_ae. intros H. destruct (c =? 64) eqn:E; [|reflexivity]. apply N.eqb_eq in E. subst c. discriminate. Qed.

(* the same function with the end-of-authority test as a parameter `stop`: sa_run is convertible to auth_run is_ae *)
Section AuthorityText.
Variable stop : N -> bool.
Hypothesis stop_at : stop 64 = false.

Fixpoint auth_run (t buf : list N) (a pw : bool) (u : spec_url) : option (list N * spec_url) :=
  match t with
  | [] => if a && is_nil buf then None else Some (buf, u)
  | c :: r =>
      if c =? 64 then
        auth_run r [] true
               (fst (authority_credentials (if a then [37; 52; 48] ++ buf else buf) pw u))
               (snd (authority_credentials (if a then [37; 52; 48] ++ buf else buf) pw u))
      else if stop c then (if a && is_nil buf then None else Some (buf, u))
      else auth_run r (buf ++ [c]) a pw u
  end.

(* the state after text `Wacc @ buf`, in terms of the LAST '@' of what follows *)
Lemma auth_run_char t : forall buf a pw u Wacc u0,
  (a = true -> authority_credentials Wacc false u0 = (pw, u)) ->
  (a = false -> pw = false /\ u = u0) ->
  auth_run t buf a pw u =
  match last_at (cut_part stop t) with
  | Some (w, h) =>
      if is_nil h then None
      else Some (h, snd (authority_credentials ((if a then Wacc ++ 64 :: buf else buf) ++ w) false u0))
  | None => if a && is_nil (buf ++ cut_part stop t) then None else Some (buf ++ cut_part stop t, u)
  end.
Proof.
  induction t as [|c r IH]; intros buf a pw u Wacc u0 Ha Hna.
  - cbn [auth_run cut_part last_at]. rewrite app_nil_r. reflexivity.
  - cbn [auth_run cut_part]. destruct (c =? 64) eqn:E64.
    + apply N.eqb_eq in E64. subst c. rewrite stop_at. cbn [last_at].
      replace (64 =? 64) with true by reflexivity.
      set (Wacc' := if a then Wacc ++ 64 :: buf else buf).
      assert (authority_credentials Wacc' false u0
              = (fst (authority_credentials (if a then [37; 52; 48] ++ buf else buf) pw u),
                 snd (authority_credentials (if a then [37; 52; 48] ++ buf else buf) pw u))) as Hacc.
      { rewrite <- surjective_pairing. unfold Wacc'. destruct a.
        - rewrite ac_app, (Ha eq_refl). cbn [fst snd]. symmetry. apply ac_at.
        - destruct (Hna eq_refl) as [-> ->]. reflexivity. }
      rewrite (IH [] true _ _ Wacc' u0 (fun _ => Hacc)) by discriminate.
      destruct (last_at (cut_part stop r)) as [[w h]|].
      * cbn [app]. replace ((Wacc' ++ [64]) ++ w) with (Wacc' ++ 64 :: w) by (rewrite <- app_assoc; reflexivity).
        reflexivity.
      * cbn [app andb]. rewrite app_nil_r. rewrite Hacc. cbn [snd]. reflexivity.
    + destruct (stop c) eqn:Eae.
      * cbn [last_at]. rewrite app_nil_r. reflexivity.
      * cbn [last_at]. rewrite E64.
        rewrite (IH (buf ++ [c]) a pw u Wacc u0 Ha Hna).
        destruct (last_at (cut_part stop r)) as [[w h]|].
        -- destruct a; rewrite <- ?app_assoc; cbn [app]; rewrite <- ?app_assoc; reflexivity.
        -- rewrite <- app_assoc. reflexivity.
Qed.

(* at the top: buffer empty, no '@' seen *)
Lemma auth_run_top T u0 :
  auth_run T [] false false u0 =
  match last_at (cut_part stop T) with
  | Some (w, h) => if is_nil h then None else Some (h, snd (authority_credentials w false u0))
  | None => Some (cut_part stop T, u0)
  end.
Proof.
  rewrite (auth_run_char T [] false false u0 [] u0) by (intros H; first [discriminate H | split; reflexivity]).
  destruct (last_at (cut_part stop T)) as [[w h]|]; reflexivity.
Qed.

End AuthorityText.

Lemma sa_run_char t : forall buf a pw u Wacc u0,
  (a = true -> authority_credentials Wacc false u0 = (pw, u)) ->
  (a = false -> pw = false /\ u = u0) ->
  sa_run t buf a pw u =
  match last_at (a_part t) with
  | Some (w, h) =>
      if is_nil h then None
      else Some (h, snd (authority_credentials ((if a then Wacc ++ 64 :: buf else buf) ++ w) false u0))
  | None => if a && is_nil (buf ++ a_part t) then None else Some (buf ++ a_part t, u)
  end.
Proof. exact (auth_run_char is_ae eq_refl t). Qed.

Lemma sa_run_top T u0 :
  sa_run T [] false false u0 =
  match last_at (a_part T) with
  | Some (w, h) => if is_nil h then None else Some (h, snd (authority_credentials w false u0))
  | None => Some (a_part T, u0)
  end.
Proof. exact (auth_run_top is_ae eq_refl T u0). Qed.

Section AuthRuns.
Variable hp : bool -> list N -> option spec_host.
Variable input : list N.
Variable base : option spec_url.

Notation RunsN := (Runs hp input base).
Notation stepN := (step hp input base None).
Notation LEN := (Z.of_nat (length input)).

(* a run that moves the pointer back in front of the code point it has just seen *)
Lemma runs_step_back st pre t buf a b pw u st' buf' a' b' pw' u' res :
  input = pre ++ t ->
  stepN (at_pos st pre buf a b pw u) = SCont (mkM st' (Z.of_nat (length pre) - 1)%Z buf' a' b' pw' u') ->
  RunsN (at_pos st' pre buf' a' b' pw' u') res ->
  RunsN (at_pos st pre buf a b pw u) res.
Proof.
  intros Hin E HR. eapply R_next; [exact E | |].
  - cbn [m_ptr]. rewrite (len_split hp _ _ _ Hin). lia.
  - unfold inc_ptr, set_ptr. cbn [m_ptr m_state m_buf m_at m_br m_pw m_url].
    unfold at_pos in HR. replace (Z.of_nat (length pre) - 1 + 1)%Z with (Z.of_nat (length pre)) by lia. exact HR.
Qed.

(* the authority state rewinds to the start of its buffer *)
Lemma runs_step_rewind st pre buf0 t buf a b pw u st' buf' a' b' pw' u' res :
  input = (pre ++ buf0) ++ t ->
  stepN (at_pos st (pre ++ buf0) buf a b pw u)
  = SCont (mkM st' (Z.of_nat (length (pre ++ buf0)) - (Z.of_nat (length buf0) + 1))%Z buf' a' b' pw' u') ->
  RunsN (at_pos st' pre buf' a' b' pw' u') res ->
  RunsN (at_pos st (pre ++ buf0) buf a b pw u) res.
Proof.
  intros Hin E HR. eapply R_next; [exact E | |].
  - cbn [m_ptr]. rewrite (len_split hp _ _ _ Hin). lia.
  - unfold inc_ptr, set_ptr. cbn [m_ptr m_state m_buf m_at m_br m_pw m_url].
    unfold at_pos in HR.
    replace (Z.of_nat (length (pre ++ buf0)) - (Z.of_nat (length buf0) + 1) + 1)%Z with (Z.of_nat (length pre))
      by (rewrite app_length; lia).
    exact HR.
Qed.

(* some outcome with property Q *)
Definition RunsP (m : machine) (Q : parse_outcome -> Prop) : Prop := exists r, RunsN m r /\ Q r.
Definition is_fail (r : parse_outcome) : Prop := exists uf, r = BFailure uf.

(* path or authority state, second '/' *)
Lemma runs_poa_slash pre t a b pw u res :
  input = pre ++ 47 :: t ->
  RunsN (at_pos StAuthority (pre ++ [47]) [] a b pw u) res ->
  RunsN (at_pos StPathOrAuthority pre [] a b pw u) res.
Proof.
  intros Hin HR. eapply runs_step_next with (st' := StAuthority) (buf' := []); [exact Hin | | exact HR].
  rewrite (step_unfold _ _ _ _ _ _ _ _ _ _ _ Hin). reflexivity.
Qed.

(* authority state *)
Lemma authority_end_ns u c : is_special u = false -> is_authority_end u (Some c) = is_ae c.
Proof.
  intros H. unfold is_authority_end, is_ae. rewrite H. cbn [is_eof cis andb orb]. rewrite orb_false_r. reflexivity.
Qed.

(* The authority state, for either kind of URL: it runs to the host state at the start of the text `auth_run`
   leaves in the buffer (the pointer is set back by the length of the buffer), with some flags a', p' that the
   host state does not read. *)
Section AuthorityRun.
Variable stop : N -> bool.
Variable sp : bool.
Hypothesis Hend : forall u c, is_special u = sp -> is_authority_end u (Some c) = stop c.

Lemma runs_auth_cut t : forall pre buf a pw u,
  input = (pre ++ buf) ++ t -> is_special u = sp ->
  match auth_run stop t buf a pw u with
  | Some (h, u') => exists a' p', forall res,
      RunsN (at_pos StHost (firstn (length input - length (h ++ cut_rest stop t)) input) [] a' false p' u') res ->
      RunsN (at_pos StAuthority (pre ++ buf) buf a false pw u) res
  | None => exists uf, RunsN (at_pos StAuthority (pre ++ buf) buf a false pw u) (BFailure uf)
  end.
Proof.
  (* the text before the buffer, from the length of what is left *)
  assert (forall pre buf X, input = (pre ++ buf) ++ X -> firstn (length input - length (buf ++ X)) input = pre) as Hpre.
  { intros pre buf X Hin. rewrite Hin, <- app_assoc, app_length.
    replace (length pre + length (buf ++ X) - length (buf ++ X))%nat with (length pre) by lia.
    rewrite firstn_app, Nat.sub_diag, firstn_all. cbn [firstn]. apply app_nil_r. }
  induction t as [|c r IH]; intros pre buf a pw u Hin Hsp.
  - (* end of input *)
    assert (stepN (at_pos StAuthority (pre ++ buf) buf a false pw u)
            = if a && is_nil buf then SFailure u
              else SCont (mkM StHost (Z.of_nat (length (pre ++ buf)) - (Z.of_nat (length buf) + 1))%Z [] a false pw u)) as Est.
    { rewrite (step_unfold _ _ _ _ _ _ _ _ _ _ _ Hin). cbn zeta. cbn [hd_error].
      unfold st_authority. cbn [cis m_at m_buf m_url at_pos]. unfold is_authority_end. cbn [is_eof orb].
      rewrite list_eqb_nil. destruct (a && is_nil buf); reflexivity. }
    cbn [auth_run cut_rest]. destruct (a && is_nil buf).
    + exists u. apply R_fail. exact Est.
    + exists a, pw. intros res K. rewrite (Hpre pre buf [] Hin) in K.
      eapply runs_step_rewind with (st' := StHost) (buf' := []); [exact Hin | exact Est | exact K].
  - cbn [auth_run]. destruct (c =? 64) eqn:E64.
    + (* '@' *)
      set (B := if a then [37; 52; 48] ++ buf else buf).
      pose proof (IH ((pre ++ buf) ++ [c]) [] true (fst (authority_credentials B pw u))
                     (snd (authority_credentials B pw u))) as IH'.
      rewrite app_nil_r in IH'.
      assert (input = ((pre ++ buf) ++ [c]) ++ r) as Hin' by (rewrite Hin, <- !app_assoc; reflexivity).
      assert (is_special (snd (authority_credentials B pw u)) = sp) as Hsp'.
      { unfold is_special in *. rewrite ac_scheme. exact Hsp. }
      specialize (IH' Hin' Hsp').
      assert (stop c = false) as Es.
      { rewrite <- (Hend u c Hsp). apply N.eqb_eq in E64. subst c. unfold is_authority_end. cbn. apply andb_false_r. }
      assert (stepN (at_pos StAuthority (pre ++ buf) buf a false pw u)
              = SCont (mkM StAuthority (Z.of_nat (length (pre ++ buf))) [] true false
                           (fst (authority_credentials B pw u)) (snd (authority_credentials B pw u)))) as Est.
      { rewrite (step_unfold _ _ _ _ _ _ _ _ _ _ _ Hin). cbn zeta. cbn [hd_error].
        unfold st_authority. cbn [cis m_at m_buf m_pw m_url at_pos]. rewrite E64. fold B.
        destruct (authority_credentials B pw u) as [pw' u1]. reflexivity. }
      cbn [cut_rest]. rewrite Es.
      destruct (auth_run stop r [] true _ _) as [[h u']|].
      * destruct IH' as (a' & p' & K). exists a', p'. intros res HR.
        eapply runs_step_next; [exact Hin | exact Est | exact (K res HR)].
      * destruct IH' as [uf Hf]. exists uf. eapply runs_step_next; [exact Hin | exact Est | exact Hf].
    + assert (stepN (at_pos StAuthority (pre ++ buf) buf a false pw u)
              = if stop c
                then if a && is_nil buf then SFailure u
                     else SCont (mkM StHost (Z.of_nat (length (pre ++ buf)) - (Z.of_nat (length buf) + 1))%Z [] a false pw u)
                else SCont (mkM StAuthority (Z.of_nat (length (pre ++ buf))) (buf ++ [c]) a false pw u)) as Est.
      { rewrite (step_unfold _ _ _ _ _ _ _ _ _ _ _ Hin). cbn zeta. cbn [hd_error].
        unfold st_authority. cbn [cis m_at m_buf m_url at_pos]. rewrite E64, (Hend u c Hsp).
        destruct (stop c); [|reflexivity]. rewrite list_eqb_nil. destruct (a && is_nil buf); reflexivity. }
      cbn [cut_rest]. destruct (stop c) eqn:Es.
      * (* end of the authority *)
        destruct (a && is_nil buf).
        -- exists u. apply R_fail. exact Est.
        -- exists a, pw. intros res K. rewrite (Hpre pre buf (c :: r) Hin) in K.
           eapply runs_step_rewind with (st' := StHost) (buf' := []); [exact Hin | exact Est | exact K].
      * (* any other code point: onto the buffer *)
        pose proof (IH pre (buf ++ [c]) a pw u) as IH'.
        assert (input = (pre ++ buf ++ [c]) ++ r) as Hin' by (rewrite Hin, <- !app_assoc; reflexivity).
        specialize (IH' Hin' Hsp). rewrite app_assoc in IH'.
        destruct (auth_run stop r (buf ++ [c]) a pw u) as [[h u']|].
        -- destruct IH' as (a' & p' & K). exists a', p'. intros res HR.
           eapply runs_step_next; [exact Hin | exact Est | exact (K res HR)].
        -- destruct IH' as [uf Hf]. exists uf. eapply runs_step_next; [exact Hin | exact Est | exact Hf].
Qed.

End AuthorityRun.

Lemma runs_auth t : forall pre buf a pw u,
  input = (pre ++ buf) ++ t -> is_special u = false ->
  match sa_run t buf a pw u with
  | Some (h, u') =>
      forall Q, (forall a' p', RunsP (at_pos StHost (firstn (length input - length (h ++ a_rest t)) input) [] a' false p' u') Q) ->
      RunsP (at_pos StAuthority (pre ++ buf) buf a false pw u) Q
  | None => exists uf, RunsN (at_pos StAuthority (pre ++ buf) buf a false pw u) (BFailure uf)
  end.
Proof.
  intros pre buf a pw u Hin Hns.
  pose proof (runs_auth_cut is_ae false authority_end_ns t pre buf a pw u Hin Hns) as H.
  change (auth_run is_ae) with sa_run in H. change (cut_rest is_ae) with a_rest in H.
  destruct (sa_run t buf a pw u) as [[h u']|]; [|exact H].
  destruct H as (a' & p' & K). intros Q HQ. destruct (HQ a' p') as (r0 & HR & Hq).
  exists r0. split; [exact (K r0 HR) | exact Hq].
Qed.

(* path start state (URL not special, no state override) *)
Theorem runs_path_start X : forall pre a b pw u,
  input = pre ++ X -> starts_ae X = true ->
  su_path u = SPList [] -> is_special u = false -> list_eqb (su_scheme u) str_file = false ->
  RunsN (at_pos StPathStart pre [] a b pw u) (BDone (sauth_tail u X)).
Proof.
  intros pre a b pw u Hin Hx HP Hns Hf. destruct X as [|c r].
  - cbn [sauth_tail]. eapply R_end with (m' := at_pos StPathStart pre [] a b pw u).
    + rewrite (step_unfold _ _ _ _ _ _ _ _ _ _ _ Hin). cbn zeta. cbn [hd_error]. unfold st_path_start.
      cbn [m_url at_pos]. rewrite Hns. reflexivity.
    + cbn [m_ptr at_pos]. rewrite (len_split hp _ _ _ Hin). cbn [length]. lia.
  - cbn [starts_ae] in Hx. cbn [sauth_tail]. destruct (c =? 47) eqn:E47.
    + eapply runs_step_next with (st' := StPath) (buf' := []) (u' := u); [exact Hin | |].
      * rewrite (step_unfold _ _ _ _ _ _ _ _ _ _ _ Hin). cbn zeta. cbn [hd_error]. unfold st_path_start.
        cbn [m_url at_pos has_ov opt_is_some negb andb is_eof cis]. rewrite Hns, E47.
        assert ((c =? 63) = false) as -> by lia. assert ((c =? 35) = false) as -> by lia. reflexivity.
      * exact (runs_path hp input base r (pre ++ [c]) [] a b pw u [] (snoc_split _ _ _ _ Hin) HP Hns Hf).
    + unfold tail_url. destruct (c =? 63) eqn:E63.
      * eapply runs_step_next with (st' := StQuery) (buf' := []) (u' := set_query u (Some [])); [exact Hin | |].
        -- rewrite (step_unfold _ _ _ _ _ _ _ _ _ _ _ Hin). cbn zeta. cbn [hd_error]. unfold st_path_start.
           cbn [m_url at_pos has_ov opt_is_some negb andb is_eof cis]. rewrite Hns, E63. reflexivity.
        -- exact (runs_query hp input base r (pre ++ [c]) [] a b pw (set_query u (Some [])) []
                    (snoc_split _ _ _ _ Hin) eq_refl).
      * assert ((c =? 35) = true) as E35 by (unfold is_ae in Hx; rewrite E47, E63 in Hx; exact Hx).
        eapply runs_step_next with (st' := StFragment) (buf' := []) (u' := set_fragment u (Some [])); [exact Hin | |].
        -- rewrite (step_unfold _ _ _ _ _ _ _ _ _ _ _ Hin). cbn zeta. cbn [hd_error]. unfold st_path_start.
           cbn [m_url at_pos has_ov opt_is_some negb andb is_eof cis]. rewrite Hns, E63, E35. reflexivity.
        -- exact (runs_fragment hp input base r (pre ++ [c]) [] a b pw (set_fragment u (Some [])) []
                    (snoc_split _ _ _ _ Hin) eq_refl).
Qed.

(* port state *)
Lemma digit_not_ae c : is_digit c = true -> is_ae c = false.
Proof. unfold is_digit, is_ae. intros H. lia. Qed.

Lemma decimal_value_snoc d c : decimal_value (d ++ [c]) = decimal_value d * 10 + (c - 48).
Proof. unfold decimal_value. rewrite fold_left_app. reflexivity. Qed.

Theorem runs_port t : forall pre buf a b pw u,
  input = pre ++ t -> is_special u = false -> scheme_default_port (su_scheme u) = None ->
  su_path u = SPList [] -> list_eqb (su_scheme u) str_file = false ->
  let d := buf ++ digits_of t in
  let X := after_digits t in
  if negb (starts_ae X) then exists uf, RunsN (at_pos StPort pre buf a b pw u) (BFailure uf)
  else if is_nil d then RunsN (at_pos StPort pre buf a b pw u) (BDone (sauth_tail u X))
  else if 65535 <? decimal_value d then exists uf, RunsN (at_pos StPort pre buf a b pw u) (BFailure uf)
  else RunsN (at_pos StPort pre buf a b pw u) (BDone (sauth_tail (set_port u (Some (decimal_value d))) X)).
Proof.
  assert (forall X pre buf a b pw u, input = pre ++ X -> starts_ae X = true ->
            is_special u = false -> scheme_default_port (su_scheme u) = None ->
            su_path u = SPList [] -> list_eqb (su_scheme u) str_file = false ->
            (forall c r, X = c :: r -> is_digit c = false) ->
            if is_nil buf then RunsN (at_pos StPort pre buf a b pw u) (BDone (sauth_tail u X))
            else if 65535 <? decimal_value buf then exists uf, RunsN (at_pos StPort pre buf a b pw u) (BFailure uf)
            else RunsN (at_pos StPort pre buf a b pw u) (BDone (sauth_tail (set_port u (Some (decimal_value buf))) X))) as Hend.
  { intros X pre buf a b pw u Hin Hx Hns Hdp HP Hf Hnd.
    assert (cpred is_digit (hd_error X) = false) as Ecd.
    { destruct X as [|c r]; [reflexivity|]. cbn [hd_error cpred]. exact (Hnd c r eq_refl). }
    assert (is_authority_end u (hd_error X) = true) as Eend.
    { destruct X as [|c r]; [reflexivity|]. cbn [hd_error]. rewrite (authority_end_ns u c Hns). exact Hx. }
    destruct buf as [|d0 dr] eqn:Eb; cbn [is_nil].
    - eapply runs_step_back with (st' := StPathStart) (buf' := []) (u' := u); [exact Hin | |].
      + rewrite (step_unfold _ _ _ _ _ _ _ _ _ _ _ Hin). cbn zeta. unfold st_port.
        cbn [m_url m_buf at_pos]. rewrite Ecd, Eend. cbn [orb list_eqb negb has_ov opt_is_some]. reflexivity.
      + apply runs_path_start; assumption.
    - rewrite <- Eb. destruct (65535 <? decimal_value buf) eqn:Eov.
      + exists u. apply R_fail. rewrite (step_unfold _ _ _ _ _ _ _ _ _ _ _ Hin). cbn zeta. unfold st_port.
        cbn [m_url m_buf at_pos]. rewrite Ecd, Eend. cbn [orb]. rewrite Eb at 1. cbn [list_eqb negb].
        rewrite Eov. reflexivity.
      + eapply runs_step_back with (st' := StPathStart) (buf' := [])
          (u' := set_port u (Some (decimal_value buf))); [exact Hin | |].
        * rewrite (step_unfold _ _ _ _ _ _ _ _ _ _ _ Hin). cbn zeta. unfold st_port.
          cbn [m_url m_buf at_pos]. rewrite Ecd, Eend. cbn [orb]. rewrite Eb at 1. cbn [list_eqb negb].
          rewrite Eov. unfold port_is_default. rewrite Hdp. cbn [has_ov opt_is_some]. reflexivity.
        * apply runs_path_start; try assumption. }
  induction t as [|c r IH]; intros pre buf a b pw u Hin Hns Hdp HP Hf.
  - cbn [digits_of after_digits starts_ae negb]. cbv zeta. rewrite app_nil_r.
    apply (Hend [] pre buf a b pw u Hin eq_refl Hns Hdp HP Hf). intros c r H. discriminate H.
  - cbn [digits_of after_digits]. destruct (is_digit c) eqn:Ed.
    + cbv zeta. pose proof (IH (pre ++ [c]) (buf ++ [c]) a b pw u (snoc_split _ _ _ _ Hin) Hns Hdp HP Hf) as IH'.
      cbv zeta in IH'. rewrite <- app_assoc in IH'. cbn [app] in IH'.
      assert (stepN (at_pos StPort pre buf a b pw u)
              = SCont (mkM StPort (Z.of_nat (length pre)) (buf ++ [c]) a b pw u)) as Est.
      { rewrite (step_unfold _ _ _ _ _ _ _ _ _ _ _ Hin). cbn zeta. cbn [hd_error]. unfold st_port.
        cbn [cpred]. rewrite Ed. reflexivity. }
      destruct (negb (starts_ae (after_digits r))).
      * destruct IH' as [uf K]. exists uf. eapply runs_step_next; [exact Hin | exact Est | exact K].
      * destruct (is_nil (buf ++ c :: digits_of r)).
        -- eapply runs_step_next; [exact Hin | exact Est | exact IH'].
        -- destruct (65535 <? decimal_value (buf ++ c :: digits_of r)).
           ++ destruct IH' as [uf K]. exists uf. eapply runs_step_next; [exact Hin | exact Est | exact K].
           ++ eapply runs_step_next; [exact Hin | exact Est | exact IH'].
    + cbv zeta. rewrite app_nil_r. cbn [starts_ae]. destruct (is_ae c) eqn:Eae; cbn [negb].
      * apply (Hend (c :: r) pre buf a b pw u Hin Eae Hns Hdp HP Hf). intros c' r' H. inversion H; subst. exact Ed.
      * exists u. apply R_fail. rewrite (step_unfold _ _ _ _ _ _ _ _ _ _ _ Hin). cbn zeta. cbn [hd_error]. unfold st_port.
        cbn [cpred m_url at_pos]. rewrite Ed, (authority_end_ns u c Hns), Eae. reflexivity.
Qed.

(* the port state on the text after "host:", as `sauth_port` *)
Corollary runs_port_top PR pre a b pw u :
  input = pre ++ PR -> is_special u = false -> scheme_default_port (su_scheme u) = None ->
  su_path u = SPList [] -> list_eqb (su_scheme u) str_file = false ->
  match sauth_port u PR with
  | Some su => RunsN (at_pos StPort pre [] a b pw u) (BDone su)
  | None => exists uf, RunsN (at_pos StPort pre [] a b pw u) (BFailure uf)
  end.
Proof.
  intros Hin Hns Hdp HP Hf. pose proof (runs_port PR pre [] a b pw u Hin Hns Hdp HP Hf) as K.
  cbv zeta in K. cbn [app] in K. unfold sauth_port.
  destruct (negb (starts_ae (after_digits PR))); [exact K|].
  destruct (is_nil (digits_of PR)); [exact K|].
  destruct (65535 <? decimal_value (digits_of PR)); exact K.
Qed.

(* host state *)
Lemma hs_rest_starts br t : match hs_rest br t with [] => True | c :: _ => hs_stop br c = true \/ True end.
Proof. destruct (hs_rest br t); [exact I | right; exact I]. Qed.

Lemma hs_rest_head t : forall br, match hs_rest br t with
                                  | [] => True
                                  | c :: _ => is_ae c = true \/ (c =? 58) = true
                                  end.
Proof using hp input. exact (host_rest_head is_ae t). Qed.

Theorem runs_host t : forall pre buf br a pw u,
  input = pre ++ t -> is_special u = false -> scheme_default_port (su_scheme u) = None ->
  su_path u = SPList [] -> list_eqb (su_scheme u) str_file = false ->
  let Hh := buf ++ hs_host br t in
  match port_split (hs_rest br t) with
  | Some PR =>
      if is_nil Hh then exists uf, RunsN (at_pos StHost pre buf a br pw u) (BFailure uf)
      else match host_parsing hp true Hh with
           | None => exists uf, RunsN (at_pos StHost pre buf a br pw u) (BFailure uf)
           | Some sh =>
               match sauth_port (set_host u (Some sh)) PR with
               | Some su => RunsN (at_pos StHost pre buf a br pw u) (BDone su)
               | None => exists uf, RunsN (at_pos StHost pre buf a br pw u) (BFailure uf)
               end
           end
  | None =>
      match host_parsing hp true Hh with
      | None => exists uf, RunsN (at_pos StHost pre buf a br pw u) (BFailure uf)
      | Some sh => RunsN (at_pos StHost pre buf a br pw u) (BDone (sauth_tail (set_host u (Some sh)) (hs_rest br t)))
      end
  end.
Proof.
  (* the host ends at an end of the authority (or of the input) *)
  assert (forall X pre buf br a pw u, input = pre ++ X -> starts_ae X = true ->
            is_special u = false -> su_path u = SPList [] -> list_eqb (su_scheme u) str_file = false ->
            match host_parsing hp true buf with
            | None => exists uf, RunsN (at_pos StHost pre buf a br pw u) (BFailure uf)
            | Some sh => RunsN (at_pos StHost pre buf a br pw u) (BDone (sauth_tail (set_host u (Some sh)) X))
            end) as Hend.
  { intros X pre buf br a pw u Hin Hx Hns HP Hf.
    assert (is_authority_end u (hd_error X) = true) as Eend.
    { destruct X as [|c r]; [reflexivity|]. cbn [hd_error]. rewrite (authority_end_ns u c Hns). exact Hx. }
    assert ((cis (hd_error X) 58 && negb br) = false) as E58.
    { destruct X as [|c r]; [reflexivity|]. cbn [hd_error cis]. cbn [starts_ae] in Hx.
      destruct (c =? 58) eqn:E; [|reflexivity]. apply N.eqb_eq in E. subst c. discriminate. }
    destruct (host_parsing hp true buf) as [sh|] eqn:Ehp.
    - eapply runs_step_back with (st' := StPathStart) (buf' := []) (u' := set_host u (Some sh)); [exact Hin | |].
      + rewrite (step_unfold _ _ _ _ _ _ _ _ _ _ _ Hin). cbn zeta. unfold st_host.
        cbn [has_ov opt_is_some andb m_url m_buf m_br at_pos]. rewrite E58, Eend, Hns. cbn [andb negb]. rewrite Ehp.
        reflexivity.
      + apply runs_path_start; try assumption.
    - exists u. apply R_fail. rewrite (step_unfold _ _ _ _ _ _ _ _ _ _ _ Hin). cbn zeta. unfold st_host.
      cbn [has_ov opt_is_some andb m_url m_buf m_br at_pos]. rewrite E58, Eend, Hns. cbn [andb negb]. rewrite Ehp.
      reflexivity. }
  induction t as [|c r IH]; intros pre buf br a pw u Hin Hns Hdp HP Hf.
  - cbn [hs_host hs_rest port_split]. cbv zeta. rewrite app_nil_r.
    exact (Hend [] pre buf br a pw u Hin eq_refl Hns HP Hf).
  - cbn [hs_host hs_rest]. destruct (hs_stop br c) eqn:Estop.
    + cbv zeta. rewrite app_nil_r. cbn [port_split]. destruct (c =? 58) eqn:E58.
      * (* ':' outside brackets: the port follows *)
        assert (negb br = true) as Ebr.
        { unfold hs_stop in Estop. rewrite E58 in Estop. apply N.eqb_eq in E58. subst c.
          destruct br; [discriminate Estop | reflexivity]. }
        destruct (is_nil buf) eqn:Enil.
        -- exists u. apply R_fail. rewrite (step_unfold _ _ _ _ _ _ _ _ _ _ _ Hin). cbn zeta. cbn [hd_error]. unfold st_host.
           cbn [has_ov opt_is_some andb m_url m_buf m_br at_pos cis]. rewrite E58, Ebr. cbn [andb].
           rewrite list_eqb_nil, Enil. reflexivity.
        -- destruct (host_parsing hp true buf) as [sh|] eqn:Ehp.
           ++ assert (stepN (at_pos StHost pre buf a br pw u)
                      = SCont (mkM StPort (Z.of_nat (length pre)) [] a br pw (set_host u (Some sh)))) as Est.
              { rewrite (step_unfold _ _ _ _ _ _ _ _ _ _ _ Hin). cbn zeta. cbn [hd_error]. unfold st_host.
                cbn [has_ov opt_is_some andb m_url m_buf m_br at_pos cis]. rewrite E58, Ebr. cbn [andb].
                rewrite list_eqb_nil, Enil. unfold ov_is. rewrite Hns. cbn [negb]. rewrite Ehp. reflexivity. }
              pose proof (runs_port_top r (pre ++ [c]) a br pw (set_host u (Some sh)) (snoc_split _ _ _ _ Hin)
                            Hns Hdp HP Hf) as K.
              destruct (sauth_port (set_host u (Some sh)) r) as [su|].
              ** eapply runs_step_next; [exact Hin | exact Est | exact K].
              ** destruct K as [uf K]. exists uf. eapply runs_step_next; [exact Hin | exact Est | exact K].
           ++ exists u. apply R_fail. rewrite (step_unfold _ _ _ _ _ _ _ _ _ _ _ Hin). cbn zeta. cbn [hd_error]. unfold st_host.
              cbn [has_ov opt_is_some andb m_url m_buf m_br at_pos cis]. rewrite E58, Ebr. cbn [andb].
              rewrite list_eqb_nil, Enil. unfold ov_is. rewrite Hns. cbn [negb]. rewrite Ehp. reflexivity.
      * (* end of the authority *)
        assert (is_ae c = true) as Eae.
        { unfold hs_stop in Estop. rewrite E58 in Estop. exact Estop. }
        exact (Hend (c :: r) pre buf br a pw u Hin Eae Hns HP Hf).
    + (* the code point goes onto the buffer *)
      cbv zeta.
      pose proof (IH (pre ++ [c]) (buf ++ [c]) (br_next br c) a pw u (snoc_split _ _ _ _ Hin) Hns Hdp HP Hf) as IH'.
      cbv zeta in IH'. rewrite <- app_assoc in IH'. cbn [app] in IH'.
      assert (stepN (at_pos StHost pre buf a br pw u)
              = SCont (mkM StHost (Z.of_nat (length pre)) (buf ++ [c]) a (br_next br c) pw u)) as Est.
      { rewrite (step_unfold _ _ _ _ _ _ _ _ _ _ _ Hin). cbn zeta. cbn [hd_error]. unfold st_host.
        cbn [has_ov opt_is_some andb m_url m_buf m_br at_pos cis].
        unfold hs_stop in Estop. apply orb_false_iff in Estop. destruct Estop as [E1 E2].
        rewrite E1, (authority_end_ns u c Hns), E2. unfold br_next, set_br, push_buf, set_buf.
        cbn [m_state m_ptr m_buf m_at m_br m_pw m_url].
        destruct (c =? 91) eqn:E91.
        - assert ((c =? 93) = false) as -> by lia. reflexivity.
        - destruct (c =? 93); reflexivity. }
      destruct (port_split (hs_rest (br_next br c) r)) as [PR|].
      * destruct (is_nil (buf ++ c :: hs_host (br_next br c) r)).
        -- destruct IH' as [uf K]. exists uf. eapply runs_step_next; [exact Hin | exact Est | exact K].
        -- destruct (host_parsing hp true (buf ++ c :: hs_host (br_next br c) r)) as [sh|].
           ++ destruct (sauth_port (set_host u (Some sh)) PR) as [su|].
              ** eapply runs_step_next; [exact Hin | exact Est | exact IH'].
              ** destruct IH' as [uf K]. exists uf. eapply runs_step_next; [exact Hin | exact Est | exact K].
           ++ destruct IH' as [uf K]. exists uf. eapply runs_step_next; [exact Hin | exact Est | exact K].
      * destruct (host_parsing hp true (buf ++ c :: hs_host (br_next br c) r)) as [sh|].
        -- eapply runs_step_next; [exact Hin | exact Est | exact IH'].
        -- destruct IH' as [uf K]. exists uf. eapply runs_step_next; [exact Hin | exact Est | exact K].
Qed.

Corollary runs_host_top HR pre a pw u :
  input = pre ++ HR -> is_special u = false -> scheme_default_port (su_scheme u) = None ->
  su_path u = SPList [] -> list_eqb (su_scheme u) str_file = false ->
  match sauth_host hp u HR with
  | Some su => RunsN (at_pos StHost pre [] a false pw u) (BDone su)
  | None => exists uf, RunsN (at_pos StHost pre [] a false pw u) (BFailure uf)
  end.
Proof.
  intros Hin Hns Hdp HP Hf. pose proof (runs_host HR pre [] false a pw u Hin Hns Hdp HP Hf) as K.
  cbv zeta in K. cbn [app] in K. unfold sauth_host.
  destruct (port_split (hs_rest false HR)) as [PR|].
  - destruct (is_nil (hs_host false HR)); [exact K|].
    destruct (host_parsing hp true (hs_host false HR)) as [sh|]; exact K.
  - destruct (host_parsing hp true (hs_host false HR)) as [sh|]; exact K.
Qed.

(* authority state from its start: `sauth` *)
Lemma scheme_port_none sch : is_special_scheme sch = false -> scheme_default_port sch = None.
Proof.
  unfold is_special_scheme, scheme_default_port. intros H.
  induction special_schemes as [|p l IH]; [reflexivity|]. cbn [existsb find] in *.
  apply orb_false_iff in H. destruct H as [H1 H2]. rewrite H1. exact (IH H2).
Qed.

Theorem runs_authority pre T sch :
  input = pre ++ T -> is_special_scheme sch = false ->
  match sauth hp sch T with
  | Some su => RunsN (at_pos StAuthority pre [] false false false (set_scheme empty_url sch)) (BDone su)
  | None => exists uf, RunsN (at_pos StAuthority pre [] false false false (set_scheme empty_url sch)) (BFailure uf)
  end.
Proof.
  intros Hin Hnsp.
  set (u0 := set_scheme empty_url sch).
  assert (is_special u0 = false) as Hns by exact Hnsp.
  assert (list_eqb sch str_file = false) as Hnf.
  { destruct (list_eqb sch str_file) eqn:E; [|reflexivity]. apply list_eqb_spec in E. subst sch. discriminate. }
  assert (input = (pre ++ []) ++ T) as Hin0 by (rewrite app_nil_r; exact Hin).
  pose proof (runs_auth T pre [] false false u0) as RA. rewrite app_nil_r in RA.
  rewrite sa_run_top in RA. unfold sauth, after_at. fold u0.
  (* what the host state needs of the URL after the credentials *)
  assert (forall W, let u1 := cred_of W u0 in
            is_special u1 = false /\ scheme_default_port (su_scheme u1) = None /\ su_path u1 = SPList []
            /\ list_eqb (su_scheme u1) str_file = false) as Hu1.
  { intros [w|]; cbv zeta; cbn [cred_of].
    - unfold is_special. rewrite ac_scheme. destruct (ac_rest w false u0) as (_ & _ & Hp & _).
      cbv zeta in Hp. rewrite Hp. cbn [u0 su_scheme set_scheme su_path empty_url].
      repeat split; [exact Hnsp | apply scheme_port_none; exact Hnsp | exact Hnf].
    - repeat split; [exact Hnsp | apply scheme_port_none; exact Hnsp | exact Hnf]. }
  destruct (last_at (a_part T)) as [[w h]|] eqn:Ela.
  - (* credentials *)
    pose proof (a_part_no_ae T) as Hnae. pose proof (last_at_split _ _ _ Ela) as Esp.
    assert (forallb (fun c => negb (is_ae c)) h = true) as Hh.
    { rewrite Esp in Hnae. rewrite forallb_app in Hnae. apply andb_true_iff in Hnae. destruct Hnae as [_ Hn].
      cbn [forallb] in Hn. apply andb_true_iff in Hn. tauto. }
    cbn [opt_is_some andb]. rewrite (starts_ae_app h (a_rest T) Hh (a_rest_starts T)).
    destruct (is_nil h) eqn:Enil.
    + destruct (RA Hin Hns) as [uf K]. exists uf. exact K.
    + destruct (Hu1 (Some w)) as (H1 & H2 & H3 & H4). cbv zeta in H1, H2, H3, H4.
      assert (input = firstn (length input - length (h ++ a_rest T)) input ++ h ++ a_rest T) as Hin1.
      { assert (exists p, input = p ++ h ++ a_rest T) as [p Hp].
        { exists (pre ++ w ++ [64]). rewrite Hin. rewrite <- (a_part_rest T) at 1. rewrite Esp.
          rewrite <- !app_assoc. reflexivity. }
        rewrite Hp. rewrite firstn_len_sub. reflexivity. }
      pose proof (fun a' p' => runs_host_top (h ++ a_rest T) _ a' p' (cred_of (Some w) u0) Hin1 H1 H2 H3 H4) as RH.
      cbn [cred_of] in RH |- *.
      destruct (sauth_host hp (snd (authority_credentials w false u0)) (h ++ a_rest T)) as [su|].
      * destruct (RA Hin Hns (eq (BDone su))) as (r0 & HR & <-); [|exact HR].
        intros a' p'. exists (BDone su). split; [apply RH | reflexivity].
      * destruct (RA Hin Hns is_fail) as (r0 & HR & uf & ->); [|exists uf; exact HR].
        intros a' p'. destruct (RH a' p') as [uf K1]. exists (BFailure uf). split; [exact K1 | exists uf; reflexivity].
  - (* no '@' *)
    cbn [opt_is_some andb].
    destruct (Hu1 None) as (H1 & H2 & H3 & H4). cbv zeta in H1, H2, H3, H4. cbn [cred_of] in *.
    assert (input = firstn (length input - length (a_part T ++ a_rest T)) input ++ a_part T ++ a_rest T) as Hin1.
    { rewrite a_part_rest. rewrite Hin. rewrite firstn_len_sub. reflexivity. }
    pose proof (fun a' p' => runs_host_top (a_part T ++ a_rest T) _ a' p' u0 Hin1 H1 H2 H3 H4) as RH.
    assert (sauth_host hp u0 (a_part T ++ a_rest T) = sauth_host hp u0 T) as Esh by (rewrite a_part_rest; reflexivity).
    rewrite Esh in RH.
    destruct (sauth_host hp u0 T) as [su|].
    + destruct (RA Hin Hns (eq (BDone su))) as (r0 & HR & <-); [|exact HR].
      intros a' p'. exists (BDone su). split; [apply RH | reflexivity].
    + destruct (RA Hin Hns is_fail) as (r0 & HR & uf & ->); [|exists uf; exact HR].
      intros a' p'. destruct (RH a' p') as [uf K1]. exists (BFailure uf). split; [exact K1 | exists uf; reflexivity].
Qed.

End AuthRuns.
