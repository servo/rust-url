(* Proofs/C01_EqPath.v - C01 equivalence, authority-less hierarchical class: "scheme:/path..." with a
   non-special scheme, no base.  The model resolves dot segments by truncating the serialization,
   the Standard by popping a list of segments; the two are related through the abstraction
   serialization = pre "/" seg "/" ... "/" cur  <->  (list of closed segments, buffer).
   Excluded, exactly: a ".." that would pop a drive-letter-shaped segment (finding F-C01-9: the model
   never pops it, in any scheme) - `spath_ok` below computes that on the Standard's own state. *)
From RU Require Import Base.Prelude Base.Utf8 Gen.Tables Model.PercentEncoding Model.HostT Model.UrlRecord
  Model.Parser Model.WF Spec.Whatwg Proofs.ListN Proofs.C02_Enc Proofs.C02_Parts Proofs.C02_Opaque
  Proofs.C02_Path Proofs.C02_PathL1 Proofs.C03_WF Proofs.C01_Tables Proofs.C08_Input Proofs.C01_EqRun
  Proofs.C01_EqEnc Proofs.C01_EqApi Proofs.C01_EqOpaque Proofs.C01_EqDots Proofs.C01_EqPathSpec Proofs.C06_Steps
  Proofs.C01_EqRef.

(* finish_segment, exactly *)
Definition last_is_wdl (segs : list (list N)) : bool :=
  match rev segs with t :: _ => starts_with_wdl (t ++ [47]) | [] => false end.

(* the ".." would meet a drive-letter-shaped last segment *)
Definition fin_ok (segs : list (list N)) (cur : list N) : bool := negb (is_double_dot_segment cur && last_is_wdl segs).

Definition fin_step (segs : list (list N)) (cur : list N) (ews : bool) : list (list N) * list N :=
  if is_double_dot_segment cur then (removelast segs, [])
  else if is_single_dot_segment cur then (segs, [])
  else if ews then (segs ++ [cur], []) else (segs, cur).

Lemma fin_of_step segs cur sep :
  fin segs cur sep = if sep then fst (fin_step segs cur sep) else fst (fin_step segs cur sep) ++ [snd (fin_step segs cur sep)].
Proof.
  unfold fin, fin_step. destruct (is_double_dot_segment cur); [destruct sep; reflexivity|].
  destruct (is_single_dot_segment cur); destruct sep; reflexivity.
Qed.

Section FinishExact.
Variable pre : list N.
Variable dbg : bool.
Notation ps := (nlen pre).
Notation BsP := (Bs pre).

(* the pieces of finish_segment on the serialization pre "/" seg "/" ... "/" cur, for any scheme type *)
Lemma finish_slice segs cur (ews : bool) :
  slice_o (BsP segs ++ cur ++ (if ews then [47] else [])) (nlen (BsP segs))
          (if ews then nlen (BsP segs ++ cur ++ (if ews then [47] else [])) - 1
           else nlen (BsP segs ++ cur ++ (if ews then [47] else []))) = Some cur.
Proof.
  destruct ews; rewrite !nlen_app.
  - replace (nlen (BsP segs) + (nlen cur + nlen [47]) - 1) with (nlen (BsP segs) + nlen cur) by (unfold nlen; cbn [length]; lia).
    apply slice_mid.
  - replace (nlen (BsP segs) + (nlen cur + nlen [])) with (nlen (BsP segs) + nlen cur) by (unfold nlen; cbn [length]; lia).
    apply slice_mid.
Qed.

(* the debug assertion of the ".." arm: the byte in front of the segment is '/' *)
Lemma finish_dbg_ok segs tl :
  (if dbg then match (if 1 <=? nlen (BsP segs) then nnth (BsP segs ++ tl) (nlen (BsP segs) - 1) else None) with
               | Some b => passert (b =? 47) | None => PPanic end else POk tt) = POk tt.
Proof.
  destruct dbg; [|reflexivity]. pose proof (Bs_len_ge pre segs) as Hl. destruct (Bs_ends pre segs) as [X EX].
  replace (1 <=? nlen (BsP segs)) with true by lia.
  rewrite nnth_app_l by lia. rewrite EX. rewrite nlen_app.
  replace (nlen X + nlen [47] - 1) with (nlen X) by (unfold nlen; cbn [length]; lia).
  rewrite nnth_app_last. reflexivity.
Qed.

Lemma Bs_empty : BsP [] = pre ++ [47].
Proof. unfold Bs. cbn. apply app_nil_r. Qed.

Lemma lscbr_nil : last_slash_can_be_removed (BsP []) ps = false.
Proof.
  unfold last_slash_can_be_removed. rewrite Bs_empty. rewrite nlen_app.
  replace (ps + nlen [47] - 1) with ps by (unfold nlen; cbn [length]; lia).
  rewrite nfirstn_app_len. destruct (rfind 47 pre) as [p|] eqn:Ep; [|reflexivity].
  apply rfind_lt in Ep. replace (ps <=? p) with false by lia. reflexivity.
Qed.

Lemma Bs_snoc_cut segs0 t : nfirstn (nlen (BsP (segs0 ++ [t])) - 1) (BsP (segs0 ++ [t])) = BsP segs0 ++ t.
Proof.
  rewrite Bs_snoc. rewrite !nlen_app.
  replace (nlen (BsP segs0) + (nlen t + nlen [47]) - 1) with (nlen (BsP segs0 ++ t)) by (rewrite nlen_app; unfold nlen; cbn [length]; lia).
  rewrite app_assoc. apply nfirstn_app_len.
Qed.

(* the last '/' may go unless the last segment is drive-letter-shaped *)
Lemma lscbr_snoc segs0 t : no_slash t = true ->
  last_slash_can_be_removed (BsP (segs0 ++ [t])) ps = negb (starts_with_wdl (t ++ [47])).
Proof.
  intros Htn. destruct (Bs_ends pre segs0) as [X0 EX0]. pose proof (Bs_len_ge pre segs0) as Hl0.
  assert (nlen (BsP segs0) = nlen X0 + 1) as EL0 by (rewrite EX0, nlen_app; reflexivity).
  unfold last_slash_can_be_removed. rewrite Bs_snoc_cut. rewrite EX0 at 1. rewrite <- app_assoc. cbn [app].
  rewrite (rfind_app_last 47 X0 t) by (rewrite <- no_slash_no_byte; exact Htn).
  replace (ps <=? nlen X0) with true by lia. cbn [andb].
  rewrite Bs_snoc, EX0. rewrite <- !app_assoc. rewrite nskipn_app_len. cbn [app].
  unfold path_starts_with_wdl. cbn [is_path_end]. replace (47 =? 47) with true by reflexivity. reflexivity.
Qed.

Lemma shorten_Bs_nil st : Parser.shorten_path st ps (BsP []) = POk (BsP []).
Proof.
  unfold Parser.shorten_path, pop_path. rewrite Bs_empty. rewrite nlen_app.
  replace (ps + nlen [47] =? ps) with false by (unfold nlen; cbn [length]; lia).
  rewrite nskipn_app_len. replace (is_normalized_wdl [47]) with false by reflexivity. rewrite andb_false_r.
  replace (ps <? ps + nlen [47]) with true by (unfold nlen; cbn [length]; lia).
  change (rfind 47 [47]) with (rfind 47 ([] ++ 47 :: [])). rewrite (rfind_app_last 47 [] []) by reflexivity.
  replace (ps + nlen [] + 1) with (nlen (pre ++ [47])) by (rewrite nlen_app; unfold nlen; cbn [length]; lia).
  rewrite nskipn_all by lia. replace (is_normalized_wdl []) with false by reflexivity. rewrite andb_false_r.
  unfold truncate. rewrite nfirstn_all by lia. reflexivity.
Qed.

(* popping the open segment t: back to the '/' in front of it (a file URL keeps a normalized drive letter) *)
Lemma shorten_Bs_snoc st segs0 t : no_slash t = true -> st_is_file st && is_normalized_wdl t = false ->
  Parser.shorten_path st ps (BsP segs0 ++ t) = POk (BsP segs0).
Proof.
  intros Htn Htw. pose proof (Bs_len_ge pre segs0) as Hl0.
  unfold Parser.shorten_path, pop_path. rewrite nlen_app.
  replace (nlen (BsP segs0) + nlen t =? ps) with false by lia.
  assert (exists Y, nskipn ps (BsP segs0 ++ t) = Y ++ 47 :: t /\ ps + nlen Y + 1 = nlen (BsP segs0)
                    /\ match Y with [] => True | y :: _ => y = 47 end) as (Y & EY & ELY & HY).
  { unfold Bs. rewrite <- !app_assoc. rewrite nskipn_app_len.
    destruct (rev segs0) as [|t1 r1] eqn:Er0.
    - assert (segs0 = []) as E0 by (rewrite <- (rev_involutive segs0), Er0; reflexivity). rewrite E0.
      exists []. cbn. split; [reflexivity|]. split; [|exact I]. unfold nlen. rewrite !app_length. cbn [length]. lia.
    - assert (segs0 = rev r1 ++ [t1]) as E0 by (rewrite <- (rev_involutive segs0), Er0; reflexivity). rewrite E0.
      rewrite segs_text_snoc. exists ([47] ++ segs_text (rev r1) ++ t1). split.
      + rewrite <- !app_assoc. reflexivity.
      + split; [len_lia | reflexivity]. }
  rewrite EY.
  assert (is_normalized_wdl (Y ++ 47 :: t) = false) as ->.
  { unfold is_normalized_wdl, is_wdl, starts_with_wdl. destruct Y as [|y Y']; cbn [app].
    - replace (is_alpha 47) with false by reflexivity. destruct t as [|t0 t']; [reflexivity|]. rewrite !andb_false_r. reflexivity.
    - subst y. replace (is_alpha 47) with false by reflexivity.
      destruct (Y' ++ 47 :: t) as [|z0 z']; [reflexivity|]. rewrite !andb_false_r. reflexivity. }
  rewrite andb_false_r.
  replace (ps <? nlen (BsP segs0) + nlen t) with true by lia.
  rewrite (rfind_app_last 47 Y t) by (rewrite <- no_slash_no_byte; exact Htn).
  rewrite ELY. rewrite nskipn_app_len. rewrite Htw.
  unfold truncate. rewrite nfirstn_app_len. reflexivity.
Qed.

Lemma finish_exact st segs cur (ews : bool) hh : st_is_file st = false ->
  forallb no_slash segs = true -> fin_ok segs cur = true ->
  finish_segment dbg st ps (BsP segs ++ cur ++ (if ews then [47] else [])) (nlen (BsP segs)) ews hh
  = POk (BsP (fst (fin_step segs cur ews)) ++ snd (fin_step segs cur ews), hh).
Proof.
  intros Hst Hsegs Hok. unfold fin_step, fin_ok in *. rewrite <- double_dot_agree in *. rewrite <- single_dot_agree.
  set (s1 := BsP segs ++ cur ++ (if ews then [47] else [])).
  assert (truncate s1 (nlen (BsP segs)) = BsP segs) as Htr by (unfold truncate, s1; apply nfirstn_app_len).
  destruct (Bs_ends pre segs) as [X EX].
  assert (ends_with_byte 47 (BsP segs) = true) as Hends by (rewrite EX; apply ends_with_byte_snoc).
  pose proof (finish_slice segs cur ews) as Hslice. fold s1 in Hslice.
  unfold finish_segment. rewrite Hslice. cbn [of_option pbind].
  destruct (is_double_dot cur) eqn:Edd.
  - (* double dot *)
    cbn [andb] in Hok. apply negb_true_iff in Hok.
    unfold s1 at 1. rewrite finish_dbg_ok. cbn [pbind fst snd]. rewrite Htr, Hends. cbn [andb].
    unfold last_is_wdl in Hok.
    destruct (rev segs) as [|t r] eqn:Er.
    + (* no segment yet: nothing to pop *)
      assert (segs = []) as -> by (rewrite <- (rev_involutive segs), Er; reflexivity).
      rewrite lscbr_nil, shorten_Bs_nil. cbn [pbind]. rewrite Hends. rewrite andb_false_r. cbn [removelast].
      rewrite app_nil_r. reflexivity.
    + assert (segs = rev r ++ [t]) as Es by (rewrite <- (rev_involutive segs), Er; reflexivity).
      set (segs0 := rev r) in *. rewrite Es in *. rewrite forallb_snoc in Hsegs.
      apply andb_true_iff in Hsegs. destruct Hsegs as [Hsegs0 Htn].
      rewrite removelast_last, (lscbr_snoc segs0 t Htn), Hok. cbn [negb].
      rewrite Bs_snoc_cut, (shorten_Bs_snoc st segs0 t Htn) by (rewrite Hst; reflexivity). cbn [pbind].
      destruct (Bs_ends pre segs0) as [X0 EX0].
      rewrite EX0. rewrite ends_with_byte_snoc. rewrite andb_false_r. rewrite app_nil_r. reflexivity.
  - destruct (is_single_dot cur) eqn:Esd.
    + rewrite Htr, Hends. cbn [fst snd]. rewrite app_nil_r. reflexivity.
    + rewrite Hst. cbn [andb]. unfold s1. destruct ews; cbn [fst snd].
      * rewrite app_nil_r, Bs_snoc. reflexivity.
      * rewrite app_nil_r. reflexivity.
Qed.

End FinishExact.

(* the path loop, exactly *)
(* no ".." of the text meets a drive-letter-shaped last segment (computed on the Standard's state) *)
Fixpoint spath_ok (t : list N) (P : list (list N)) (B : list N) : bool :=
  match t with
  | [] => fin_ok P B
  | c :: r => if c =? 47 then fin_ok P B && spath_ok r (fin P B true) []
              else if is_qh c then fin_ok P B
              else spath_ok r P (B ++ utf8_percent_encode_cp in_path_set c)
  end.

(* the same test with the separator left open (`spath_ok` at c = '/'; at '/' or '\' for a special URL), and the two
   functions of the text under another name of the separator test *)
Section OkAny.
Variable sp : N -> bool.
Fixpoint spath_ok_g (t : list N) (P : list (list N)) (B : list N) : bool :=
  match t with
  | [] => fin_ok P B
  | c :: r => if sp c then fin_ok P B && spath_ok_g r (fin P B true) []
              else if is_qh c then fin_ok P B
              else spath_ok_g r P (B ++ utf8_percent_encode_cp in_path_set c)
  end.
End OkAny.

Lemma spath_ok_g_ext sp sp' t : (forall c, sp c = sp' c) -> forall P B, spath_ok_g sp t P B = spath_ok_g sp' t P B.
Proof. intros H. induction t as [|c r IH]; intros P B; [reflexivity|]. cbn [spath_ok_g]. rewrite H, !IH. reflexivity. Qed.

Lemma spath_g_ext sp sp' t : (forall c, sp c = sp' c) -> forall P B, spath_g sp fin t P B = spath_g sp' fin t P B.
Proof. intros H. induction t as [|c r IH]; intros P B; [reflexivity|]. cbn [spath_g]. rewrite H, !IH. reflexivity. Qed.

Section LoopExact.
Variable pre : list N.
Variable dbg : bool.
Notation ps := (nlen pre).
Notation loop := (parse_path_loop dbg CUrlParser STNotSpecial ps).
Notation BsP := (Bs pre).
Notation enc pend := (encode T_PATH (utf8_encode (rev pend))).

Lemma enc_no_slash pend : pend_ok pend -> no_slash (enc pend) = true.
Proof.
  intros [Hu Hp]. unfold no_slash.
  apply encode_utf8_forallb; [reflexivity | exact hex_not_slash | apply usv_rev; exact Hu|].
  apply Forall_forall. intros c Hin _. unfold no_byte in Hp. rewrite forallb_forall in Hp.
  apply Hp. apply in_rev. exact Hin.
Qed.

Lemma no_slash_app a b : no_slash (a ++ b) = no_slash a && no_slash b.
Proof. unfold no_slash. apply forallb_app. Qed.

Lemma no_slash_removelast segs : forallb no_slash segs = true -> forallb no_slash (removelast segs) = true.
Proof.
  intros H. rewrite forallb_forall in *. intros x Hx. apply H.
  destruct segs as [|s0 segs]; [destruct Hx|].
  assert (s0 :: segs <> []) as Hne by discriminate.
  rewrite (app_removelast_last [] Hne). apply in_or_app. left. exact Hx.
Qed.

Lemma fin_step_no_slash segs B ews : forallb no_slash segs = true -> no_slash B = true ->
  forallb no_slash (fst (fin_step segs B ews)) = true /\ no_slash (snd (fin_step segs B ews)) = true.
Proof.
  intros Hs HB. unfold fin_step. destruct (is_double_dot_segment B).
  - split; [apply no_slash_removelast; exact Hs | reflexivity].
  - destruct (is_single_dot_segment B); [split; [exact Hs | reflexivity]|].
    destruct ews; cbn [fst snd]; [|split; assumption].
    split; [|reflexivity]. rewrite forallb_app, Hs. cbn [forallb]. rewrite HB. reflexivity.
Qed.

Lemma fin_step_sep_last segs B : snd (fin_step segs B true) = [].
Proof. unfold fin_step. destruct (is_double_dot_segment B); [reflexivity|]. destruct (is_single_dot_segment B); reflexivity. Qed.

Lemma enc_snoc pend c : enc (c :: pend) = enc pend ++ utf8_percent_encode_cp in_path_set c.
Proof.
  cbn [rev]. rewrite enc_utf8_app. f_equal.
  unfold utf8_encode. cbn [flat_map]. rewrite app_nil_r. apply enc_bridge1. exact rel_PATH.
Qed.

(* the loop of any non-file scheme type `st0`, with the separator test of C02_Path *)
Section AnyType.
Variable st0 : scheme_type.
Hypothesis Hst0 : st_is_file st0 = false.
Notation loop0 := (parse_path_loop dbg CUrlParser st0 ps).

Theorem loop_exact_g l : forall segs cur pend hh, usv_list l -> pend_ok pend ->
  forallb no_slash segs = true -> no_slash cur = true ->
  spath_ok_g (sep st0) (ntnl l) segs (cur ++ enc pend) = true ->
  exists segs' last',
    loop0 l (BsP segs ++ cur) (nlen (BsP segs)) pend hh = POk (BsP segs' ++ last', hh, cbb_rest l)
    /\ fst (spath_g (sep st0) fin (ntnl l) segs (cur ++ enc pend)) = segs' ++ [last']
    /\ snd (spath_g (sep st0) fin (ntnl l) segs (cur ++ enc pend)) = ntnl (cbb_rest l).
Proof.
  assert (forall ser, drive_arm st0 ps ser = false) as Hda by (intros ser; unfold drive_arm; rewrite Hst0; reflexivity).
  assert (forall segs cur pend, pend_ok pend ->
            push_pending CUrlParser st0 (BsP segs ++ cur) pend = BsP segs ++ (cur ++ enc pend)) as Hpush.
  { intros segs cur pend [Hp _]. rewrite push_pending_eq by exact Hp. rewrite <- app_assoc. reflexivity. }
  assert (forall l0 segs cur pend hh, stops l0 ->
            pend_ok pend -> forallb no_slash segs = true -> no_slash cur = true ->
            fin_ok segs (cur ++ enc pend) = true ->
            loop0 l0 (BsP segs ++ cur) (nlen (BsP segs)) pend hh
            = POk (BsP (fst (fin_step segs (cur ++ enc pend) false)) ++ snd (fin_step segs (cur ++ enc pend) false), hh, l0)) as Hend.
  { intros l0 segs cur pend hh Hl Hp Hsegs Hn Hok.
    rewrite loop_stop by exact Hl. rewrite Hpush by exact Hp.
    pose proof (finish_exact pre dbg st0 segs (cur ++ enc pend) false hh Hst0 Hsegs Hok) as Hf.
    rewrite app_nil_r in Hf. rewrite Hf. cbn [pbind]. unfold file_path_fixup. rewrite Hst0. reflexivity. }
  induction l as [|c r IH]; intros segs cur pend hh Hu Hp Hsegs Hn Hok.
  - cbn [ntnl filter spath_ok_g spath_g fst snd cbb_rest] in *.
    eexists. eexists. split; [apply (Hend [] segs cur pend hh I Hp Hsegs Hn Hok)|].
    split; [apply fin_of_step | reflexivity].
  - apply usv_cons in Hu. destruct Hu as [Huc Hur]. cbn [cbb_rest].
    assert (pend_ok []) as Hp0 by (split; [constructor | reflexivity]).
    assert (no_slash (cur ++ enc pend) = true) as Hn'.
    { rewrite no_slash_app, Hn, (enc_no_slash pend Hp). reflexivity. }
    destruct (is_tnl c) eqn:Et.
    + rewrite ntnl_cons_tnl in * by exact Et.
      rewrite loop_tnl by exact Et. rewrite Hpush by exact Hp.
      assert ((cur ++ enc pend) ++ enc [] = cur ++ enc pend) as E0 by (cbn; apply app_nil_r).
      destruct (IH segs (cur ++ enc pend) [] hh Hur Hp0 Hsegs Hn') as (segs' & last' & G1 & G2 & G3).
      { rewrite E0. exact Hok. }
      rewrite E0 in G2, G3. exists segs', last'. split; [exact G1 | split; assumption].
    + rewrite ntnl_cons in * by exact Et.
      destruct (C02_Parts.is_qh c) eqn:Eq.
      * assert (sep st0 c = false) as Es by (apply (stops_no_sep st0 c r); split; assumption).
        cbn [spath_ok_g spath_g] in *. rewrite Es in *. change (is_qh c) with (C02_Parts.is_qh c) in *. rewrite Eq in *.
        cbn [fst snd].
        eexists. eexists. split; [apply (Hend (c :: r) segs cur pend hh (conj Eq Et) Hp Hsegs Hn Hok)|].
        split; [apply fin_of_step|]. rewrite ntnl_cons by exact Et. reflexivity.
      * destruct (sep st0 c) eqn:Es.
        -- cbn [spath_ok_g spath_g] in *. rewrite Es in *.
           apply andb_true_iff in Hok. destruct Hok as [Hok1 Hok2].
           rewrite loop_sep by assumption. rewrite Hpush by exact Hp.
           pose proof (finish_exact pre dbg st0 segs (cur ++ enc pend) true hh Hst0 Hsegs Hok1) as Hf.
           rewrite <- app_assoc. rewrite Hf. cbn [pbind]. rewrite fin_step_sep_last, app_nil_r.
           destruct (fin_step_no_slash segs (cur ++ enc pend) true Hsegs Hn') as [Hs1 _].
           rewrite fin_of_step in Hok2 |- *.
           set (segs1 := fst (fin_step segs (cur ++ enc pend) true)) in *.
           destruct (IH segs1 [] [] hh Hur Hp0 Hs1 eq_refl) as (segs' & last' & G1 & G2 & G3).
           { exact Hok2. }
           rewrite app_nil_r in G1. exists segs', last'. split; [exact G1 | split; assumption].
        -- cbn [spath_ok_g spath_g] in *. rewrite Es in *. change (is_qh c) with (C02_Parts.is_qh c) in *. rewrite Eq in *.
           rewrite loop_plain by (try assumption; apply Hda).
           assert ((c =? 47) = false) as E47 by (unfold sep in Es; apply orb_false_iff in Es; tauto).
           assert (pend_ok (c :: pend)) as Hp'.
           { destruct Hp as [Hp1 Hp2]. split; [apply usv_cons; split; assumption|].
             unfold no_byte in *. cbn [forallb]. rewrite E47, Hp2. reflexivity. }
           rewrite <- app_assoc, <- enc_snoc in *.
           exact (IH segs cur (c :: pend) hh Hur Hp' Hsegs Hn Hok).
Qed.

End AnyType.

Theorem loop_exact l : forall segs cur pend hh, usv_list l -> pend_ok pend ->
  forallb no_slash segs = true -> no_slash cur = true ->
  spath_ok (ntnl l) segs (cur ++ enc pend) = true ->
  exists segs' last',
    loop l (BsP segs ++ cur) (nlen (BsP segs)) pend hh = POk (BsP segs' ++ last', hh, cbb_rest l)
    /\ fst (spath (ntnl l) segs (cur ++ enc pend)) = segs' ++ [last']
    /\ snd (spath (ntnl l) segs (cur ++ enc pend)) = ntnl (cbb_rest l).
Proof.
  intros segs cur pend hh Hu Hp Hsegs Hn Hok.
  rewrite spath_is_g, (spath_g_ext _ (sep STNotSpecial) _ (fun c => eq_sym (sep_ns c))).
  apply (loop_exact_g STNotSpecial eq_refl l segs cur pend hh Hu Hp Hsegs Hn).
  rewrite <- (spath_ok_g_ext _ _ _ (fun c => eq_sym (sep_ns c))). exact Hok.
Qed.

End LoopExact.

(* no slash inside the Standard's segments *)
Lemma forallb_flat_map {A B} (f : B -> bool) (g : A -> list B) l :
  (forall x, forallb f (g x) = true) -> forallb f (flat_map g l) = true.
Proof. intros H. induction l as [|x l IH]; [reflexivity|]. cbn [flat_map]. rewrite forallb_app, H, IH. reflexivity. Qed.

Lemma hex_upper_ge48 d : 48 <= hex_upper d.
Proof. unfold hex_upper. destruct (d <? 10); lia. Qed.

Lemma upe_cp_no_slash c : (c =? 47) = false -> no_slash (utf8_percent_encode_cp in_path_set c) = true.
Proof.
  intros H. unfold utf8_percent_encode_cp, no_slash. destruct (in_path_set c).
  - apply forallb_flat_map. intros b. unfold percent_encode_byte. cbn [forallb].
    pose proof (hex_upper_ge48 (b / 16)). pose proof (hex_upper_ge48 (b mod 16)).
    replace (37 =? 47) with false by reflexivity. cbn [negb andb].
    replace (hex_upper (b / 16) =? 47) with false by lia. replace (hex_upper (b mod 16) =? 47) with false by lia.
    reflexivity.
  - cbn [forallb]. rewrite H. reflexivity.
Qed.

Lemma fin_no_slash P B sep : forallb no_slash P = true -> no_slash B = true -> forallb no_slash (fin P B sep) = true.
Proof. exact (fin_forallb no_slash P B sep eq_refl). Qed.

Lemma spath_no_slash t : forall P B, forallb no_slash P = true -> no_slash B = true ->
  forallb no_slash (fst (spath t P B)) = true.
Proof.
  intros P B. rewrite spath_is_g. revert P B.
  apply (spath_g_forallb (fun c => c =? 47) fin no_slash eq_refl); [intros P B s; apply fin_no_slash|].
  intros c B E47 _ HB. unfold no_slash in *. rewrite forallb_app, HB. apply upe_cp_no_slash. exact E47.
Qed.

Lemma fin_nonempty P B : fin P B false <> [].
Proof.
  unfold fin. destruct (is_double_dot_segment B); [|destruct (is_single_dot_segment B)];
    intros H; apply app_eq_nil in H; destruct H; discriminate.
Qed.

(* serializer of the Standard vs the model's path text *)
Lemma path_text_flat segs last : flat_map (fun s => 47 :: s) (segs ++ [last]) = path_text segs last.
Proof.
  unfold path_text. induction segs as [|s segs IH].
  - cbn. rewrite app_nil_r. reflexivity.
  - cbn [app flat_map]. rewrite IH. unfold segs_text. cbn [map concat]. rewrite <- !app_assoc. reflexivity.
Qed.

Lemma marker_flat P : P <> [] -> forallb no_slash P = true ->
  marker_of (flat_map (fun s => 47 :: s) P)
  = match P with p0 :: _ :: _ => if list_eqb p0 [] then [47; 46] else [] | _ => [] end.
Proof.
  intros Hne Hns. unfold marker_of, s_ss. destruct P as [|p0 [|p1 R]]; [contradiction | |].
  - cbn [flat_map app starts_with]. rewrite app_nil_r. replace (47 =? 47) with true by reflexivity. cbn [andb].
    cbn [forallb] in Hns. rewrite andb_true_r in Hns. destruct p0 as [|x p0]; [reflexivity|].
    cbn [starts_with]. unfold no_slash in Hns. cbn [forallb] in Hns. apply andb_true_iff in Hns. destruct Hns as [Hx _].
    apply negb_true_iff in Hx. rewrite N.eqb_sym, Hx. reflexivity.
  - cbn [flat_map app starts_with]. replace (47 =? 47) with true by reflexivity. cbn [andb].
    destruct p0 as [|x p0]; cbn [app starts_with list_eqb].
    + replace (47 =? 47) with true by reflexivity. reflexivity.
    + cbn [forallb] in Hns. apply andb_true_iff in Hns. destruct Hns as [Hx _].
      unfold no_slash in Hx. cbn [forallb] in Hx. apply andb_true_iff in Hx. destruct Hx as [Hx _].
      apply negb_true_iff in Hx. rewrite N.eqb_sym, Hx. reflexivity.
Qed.

(* the ten strings of the canonical authority-less record *)
Definition spec_noauth_url (sch : list N) (P : list (list N)) (q f : option (list N)) : spec_url :=
  mkSUrl sch [] [] None None (SPList P) q f.

Theorem api_noauth dbg shs sch P q f :
  let T := flat_map (fun s => 47 :: s) P in
  P <> [] -> forallb no_slash P = true -> wf_b (noauth_url sch T q f) = true ->
  api_of_model dbg (noauth_url sch T q f) = Some (spec_api_list shs (spec_noauth_url sch P q f)).
Proof.
  intros T Hne Hns W.
  assert (starts_with [47] T = true) as HT.
  { unfold T. destruct P as [|p0 R]; [contradiction|]. cbn [flat_map app starts_with]. reflexivity. }
  set (M := marker_of T). set (A := sch ++ [58]).
  assert (nlen A = nlen sch + 1) as EA by (unfold A; rewrite nlen_app; reflexivity).
  assert (has_authority_b (noauth_url sch T q f) = false) as Hna.
  { unfold has_authority_b, noauth_url. cbn [ser scheme_end]. unfold noauth_ser, noauth_pre.
    rewrite <- !app_assoc. rewrite nskipn_app_len. unfold s_css. cbn [app starts_with].
    replace (58 =? 58) with true by reflexivity. cbn [andb].
    unfold marker_of. destruct (starts_with s_ss T) eqn:Ess; [reflexivity|].
    cbn [app]. destruct T as [|t0 T']; [discriminate|]. cbn [starts_with] in HT. rewrite andb_true_r in HT.
    apply N.eqb_eq in HT. subst t0. unfold s_ss in Ess. cbn [starts_with app] in *.
    replace (47 =? 47) with true in * by reflexivity. cbn [andb] in *.
    destruct T' as [|y T'']; [cbn [app]; unfold qf_text; destruct q; destruct f; reflexivity | exact Ess]. }
  rewrite (api_of_model_eval dbg _ W). f_equal.
  unfold has_password_b. cbn [pidx]. rewrite Hna. cbn [andb].
  unfold piece, noauth_url.
  cbn [pidx ser scheme_end username_end host_start host_end hosti port path_start query_start
       fragment_start has_host].
  fold A M.
  unfold spec_api_list, get_href, get_protocol, get_username, get_password, get_host, get_hostname,
    get_port, get_pathname, get_search, get_hash, serialize_url, serialize_path, serialize_host_opt,
    spec_noauth_url.
  cbn [su_scheme su_username su_password su_host su_port su_path su_query su_fragment].
  fold T. rewrite <- (marker_flat P Hne Hns). fold T M.
  rewrite <- EA, !N.sub_diag.
  change (nfirstn 0 ?x) with (@nil N).
  unfold noauth_ser, noauth_pre. fold A M.
  set (PRE := A ++ M ++ T).
  assert (match qf_qs (nlen PRE) q with
          | Some x => x
          | None => match qf_fs (nlen PRE) q f with Some y => y | None => nlen (PRE ++ qf_text q f) end
          end = nlen PRE) as EAP.
  { destruct q as [x|]; [reflexivity|]. destruct f as [y|]; cbn [qf_qs qf_fs qf_qtext].
    - unfold nlen at 2. cbn [length]. lia.
    - unfold qf_text. cbn [qf_qtext qf_ftext app]. rewrite app_nil_r. reflexivity. }
  assert (match qf_fs (nlen PRE) q f with Some y => y | None => nlen (PRE ++ qf_text q f) end
          = nlen (PRE ++ qf_qtext q)) as EAQ.
  { destruct f as [y|]; cbn [qf_fs]; [symmetry; apply nlen_app|].
    unfold qf_text. cbn [qf_ftext]. rewrite app_nil_r. reflexivity. }
  rewrite EAP, EAQ.
  apply list10_eq; try reflexivity.
  - (* href *)
    unfold PRE, qf_text, qf_qtext, qf_ftext. unfold A. rewrite <- !app_assoc. cbn [app].
    destruct q; destruct f; reflexivity.
  - (* protocol *)
    unfold PRE. rewrite <- !app_assoc. apply nfirstn_app_len.
  - (* pathname *)
    unfold PRE. rewrite !nlen_app.
    replace (nlen A + (nlen M + nlen T) - (nlen A + nlen M)) with (nlen T) by lia.
    rewrite <- (nlen_app A M).
    replace ((A ++ M ++ T) ++ qf_text q f) with ((A ++ M) ++ T ++ qf_text q f) by (rewrite <- !app_assoc; reflexivity).
    rewrite nskipn_app_len. apply nfirstn_app_len.
  - (* search *)
    rewrite (nlen_app PRE). replace (nlen PRE + nlen (qf_qtext q) - nlen PRE) with (nlen (qf_qtext q)) by lia.
    rewrite nskipn_app_len. unfold qf_text. rewrite nfirstn_app_len. apply q_trim_qtext.
  - (* hash *)
    unfold qf_text. rewrite app_assoc. rewrite nskipn_app_len. apply q_trim_ftext.
Qed.

Section NoAuthClass.
Variable dbg : bool.
Variable hp hpo : list N -> result host.
Variable hd : host -> list N.
Variable ovr : option (list N -> list N).
Variable shp : bool -> list N -> option spec_host.
Variable shs : spec_host -> list N.

Notation PATH rem' := (fst (spath (ntnl rem') [] [])).

(* model side: Overflow, or the canonical record with the Standard's path *)
Theorem model_noauth input sch rem rem' : usv_list input ->
  parse_scheme CUrlParser (input_new_trim_c0 input) = Some (sch, rem) ->
  scheme_type_of sch = STNotSpecial ->
  inp_split_prefix_str s_ss rem = None -> inp_split_prefix_char 47 rem = Some rem' ->
  spath_ok (ntnl rem') [] [] = true ->
  snd (spath (ntnl rem') [] []) = ntnl (cbb_rest rem')
  /\ (parse_url dbg hp hpo hd ovr None input = PErr Overflow
      \/ (let u := noauth_url sch (flat_map (fun s => 47 :: s) (PATH rem'))
                              (pqf_q STNotSpecial (cbb_rest rem')) (pqf_f (cbb_rest rem')) in
          parse_url dbg hp hpo hd ovr None input = POk u /\ wf_b u = true)).
Proof.
  intros Hu Hs Hns Hss H47 Hok.
  destruct (parse_scheme_suffix _ _ _ _ Hs) as [pre0 Hpre].
  assert (usv_list rem) as Hur.
  { pose proof (usv_trim input Hu) as Ht. rewrite Hpre in Ht. apply usv_app in Ht. tauto. }
  assert (usv_list rem') as Hur'.
  { unfold inp_split_prefix_char in H47. destruct (inp_next rem) as [[d r]|] eqn:En; [|discriminate].
    destruct (d =? 47); [|discriminate]. inversion H47; subst. exact (inp_next_usv rem d rem' Hur En). }
  assert (pend_ok []) as Hp0 by (split; [constructor | reflexivity]).
  destruct (loop_exact (sch ++ [58]) dbg rem' [] [] [] false Hur' Hp0 eq_refl eq_refl Hok)
    as (segs & last & Hloop & Hfst & Hsnd).
  cbn [app rev utf8_encode flat_map encode] in Hfst, Hsnd.
  split; [exact Hsnd|].
  set (T := flat_map (fun s => 47 :: s) (PATH rem')).
  assert (T = path_text segs last) as ET by (unfold T; rewrite Hfst; apply path_text_flat).
  destruct (parse_url dbg hp hpo hd ovr None input) as [u|e|] eqn:E.
  - right. cbv zeta.
    destruct (parse_noauth_out dbg hp hpo hd ovr input sch rem rem' u Hu Hs Hns Hss H47 E)
      as (segs0 & last0 & q0 & f0 & K & Eu).
    destruct (noauth_url_wf _ _ _ _ _ K) as (W & _). rewrite <- Eu in W.
    (* evaluate *)
    unfold parse_url in E. rewrite Hs in E. unfold parse_with_scheme in E. rewrite Hns in E.
    destruct (to_u32 (nlen sch)) as [se| |] eqn:Eu1; cbn [pbind] in E; try discriminate.
    apply to_u32_inv in Eu1. destruct Eu1 as [-> Hb0].
    unfold parse_non_special in E. rewrite Hss, H47 in E.
    destruct (to_u32 (nlen (sch ++ [58]))) as [ps| |] eqn:Eu2; cbn [pbind] in E; try discriminate.
    apply to_u32_inv in Eu2. destruct Eu2 as [-> Hb1].
    unfold parse_path in E.
    assert ((sch ++ [58]) ++ [47] = Bs (sch ++ [58]) [] ++ []) as EB by (unfold Bs; cbn; rewrite !app_nil_r; reflexivity).
    rewrite EB in E. rewrite app_nil_r in E at 2. rewrite Hloop in E. cbn [pbind] in E.
    assert (Bs (sch ++ [58]) segs ++ last = (sch ++ [58]) ++ T) as EBT.
    { rewrite ET. unfold Bs, path_text. rewrite <- !app_assoc. reflexivity. }
    rewrite EBT in E.
    assert (starts_with [47] T = true) as HT by (rewrite ET; reflexivity).
    rewrite (wqf_noauth_eq hp hpo ovr sch T (cbb_rest rem') HT) in E. cbv zeta in E.
    destruct (parse_query_and_fragment ovr CUrlParser STNotSpecial (nlen sch) (noauth_pre sch T) (cbb_rest rem'))
      as [[[s2 qs] fs]| |] eqn:Eq; cbn [pbind] in E; try discriminate.
    apply pqf_out in Eq; [|apply usv_cbb_rest; exact Hur'|].
    2:{ unfold noauth_pre. rewrite <- !app_assoc. rewrite nfirstn_app_len. apply query_enc_nonspecial. exact Hns. }
    destruct Eq as (-> & -> & -> & _).
    assert (u = noauth_url sch T (pqf_q STNotSpecial (cbb_rest rem')) (pqf_f (cbb_rest rem'))) as EU.
    { apply (f_equal (fun r => match r with POk a => a | _ => u end)) in E. symmetry. exact E. }
    rewrite <- EU. split; [reflexivity | exact W].
  - left. f_equal. revert E.
    unfold parse_url. rewrite Hs. unfold parse_with_scheme. rewrite Hns.
    unfold to_u32 at 1. destruct (nlen sch <=? U32_MAX_P); cbn [pbind]; [|intros E; inversion E; reflexivity].
    unfold parse_non_special. rewrite Hss, H47.
    unfold to_u32 at 1. destruct (nlen (sch ++ [58]) <=? U32_MAX_P); cbn [pbind]; [|intros E; inversion E; reflexivity].
    unfold parse_path.
    assert ((sch ++ [58]) ++ [47] = Bs (sch ++ [58]) [] ++ []) as EB by (unfold Bs; cbn; rewrite !app_nil_r; reflexivity).
    rewrite EB. rewrite app_nil_r at 2. rewrite Hloop. cbn [pbind].
    assert (Bs (sch ++ [58]) segs ++ last = (sch ++ [58]) ++ T) as EBT.
    { rewrite ET. unfold Bs, path_text. rewrite <- !app_assoc. reflexivity. }
    rewrite EBT.
    assert (starts_with [47] T = true) as HT by (rewrite ET; reflexivity).
    rewrite (wqf_noauth_eq hp hpo ovr sch T (cbb_rest rem') HT). cbv zeta.
    destruct (pqf_total ovr STNotSpecial (nlen sch) (noauth_pre sch T) (cbb_rest rem') (cbb_rest_head rem'))
      as [K|[[[s2 qs] fs] K]]; rewrite K; cbn [pbind]; intros E; [inversion E; reflexivity | discriminate].
  - exfalso. revert E.
    unfold parse_url. rewrite Hs. unfold parse_with_scheme. rewrite Hns.
    unfold to_u32 at 1. destruct (nlen sch <=? U32_MAX_P); cbn [pbind]; [|discriminate].
    unfold parse_non_special. rewrite Hss, H47.
    unfold to_u32 at 1. destruct (nlen (sch ++ [58]) <=? U32_MAX_P); cbn [pbind]; [|discriminate].
    unfold parse_path.
    assert ((sch ++ [58]) ++ [47] = Bs (sch ++ [58]) [] ++ []) as EB by (unfold Bs; cbn; rewrite !app_nil_r; reflexivity).
    rewrite EB. rewrite app_nil_r at 2. rewrite Hloop. cbn [pbind].
    assert (Bs (sch ++ [58]) segs ++ last = (sch ++ [58]) ++ T) as EBT.
    { rewrite ET. unfold Bs, path_text. rewrite <- !app_assoc. reflexivity. }
    rewrite EBT.
    assert (starts_with [47] T = true) as HT by (rewrite ET; reflexivity).
    rewrite (wqf_noauth_eq hp hpo ovr sch T (cbb_rest rem') HT). cbv zeta.
    destruct (pqf_total ovr STNotSpecial (nlen sch) (noauth_pre sch T) (cbb_rest rem') (cbb_rest_head rem'))
      as [K|[[[s2 qs] fs] K]]; rewrite K; cbn [pbind]; discriminate.
Qed.

(* specification side *)
Theorem spec_noauth input sch rem rem' :
  parse_scheme CUrlParser (input_new_trim_c0 input) = Some (sch, rem) ->
  scheme_type_of sch = STNotSpecial ->
  ntnl rem = 47 :: ntnl rem' -> starts_with_cp 47 (ntnl rem') = false ->
  snd (spath (ntnl rem') [] []) = ntnl (cbb_rest rem') ->
  spec_basic_url_parse shp input None
  = BDone (spec_noauth_url sch (PATH rem') (pqf_q STNotSpecial (cbb_rest rem')) (pqf_f (cbb_rest rem'))).
Proof.
  intros Hs Hns Hrem H47 Hsnd. apply spec_parse_of_runs. rewrite spec_clean_is_ntnl_trim.
  set (inp := ntnl (input_new_trim_c0 input)).
  pose proof (scheme_state_some _ _ _ Hs) as Hss. fold inp in Hss. rewrite Hrem in Hss.
  assert (is_special_scheme sch = false) as Hnsp.
  { rewrite <- special_schemes_are_the_standards, Hns. reflexivity. }
  assert (list_eqb sch str_file = false) as Hnf.
  { destruct (list_eqb sch str_file) eqn:E; [|reflexivity]. apply list_eqb_spec in E. subst sch. discriminate. }
  set (RES := BDone (spec_noauth_url sch (PATH rem') (pqf_q STNotSpecial (cbb_rest rem')) (pqf_f (cbb_rest rem')))).
  destruct (runs_scheme shp inp None sch (47 :: ntnl rem') RES Hss) as (pre & Hin & K).
  apply K. clear K.
  apply (runs_scheme_colon_slash shp inp None pre sch (ntnl rem') RES Hin Hnsp).
  assert (inp = (pre ++ [58; 47]) ++ ntnl rem') as Hin2 by (rewrite Hin, <- app_assoc; reflexivity).
  apply (runs_path_or_authority shp inp None (pre ++ [58; 47]) (ntnl rem') false false false _ RES Hin2 H47).
  pose proof (runs_path shp inp None (ntnl rem') (pre ++ [58; 47]) [] false false false
                (set_scheme empty_url sch) [] Hin2 eq_refl) as HR.
  unfold RES.
  replace (spec_noauth_url sch (PATH rem') (pqf_q STNotSpecial (cbb_rest rem')) (pqf_f (cbb_rest rem')))
    with (tail_url (set_path (set_scheme empty_url sch) (SPList (PATH rem'))) (snd (spath (ntnl rem') [] []))).
  - apply HR; [unfold is_special; cbn [su_scheme set_scheme empty_url]; exact Hnsp | exact Hnf].
  - rewrite Hsnd. rewrite (tail_url_st STNotSpecial); [reflexivity | | reflexivity | reflexivity | apply cbb_rest_head].
    unfold is_special. cbn [su_scheme set_path set_scheme empty_url]. exact Hnsp.
Qed.

End NoAuthClass.

(* the results are related bases *)
Section NoAuthRelated.
Variable dbg : bool.
Variable shs : spec_host -> list N.

Theorem related_noauth sch P q f :
  let T := flat_map (fun s => 47 :: s) P in
  P <> [] -> forallb no_slash P = true -> wf_b (noauth_url sch T q f) = true ->
  related dbg shs (noauth_url sch T q f) (spec_noauth_url sch P q f).
Proof.
  intros T Hne Hns W.
  set (M := marker_of T). set (A := sch ++ [58]).
  assert (M = match P with p0 :: _ :: _ => if list_eqb p0 [] then [47; 46] else [] | _ => [] end) as EM
    by (apply marker_flat; assumption).
  assert (starts_with [47] T = true) as HT.
  { unfold T. destruct P as [|p0 R]; [contradiction|]. reflexivity. }
  constructor.
  - exact W.
  - apply api_noauth; assumption.
  - unfold b_before_fragment, noauth_url, serialize_url, spec_noauth_url, noauth_ser, noauth_pre.
    cbn [fragment_start ser su_scheme su_username su_password su_host su_port su_path su_query su_fragment serialize_path].
    fold T M A. rewrite <- EM. rewrite app_nil_r. unfold qf_text.
    destruct f as [y|]; cbn [qf_fs qf_ftext].
    + replace (nlen (A ++ M ++ T) + nlen (qf_qtext q)) with (nlen ((A ++ M ++ T) ++ qf_qtext q)) by apply nlen_app.
      replace ((A ++ M ++ T) ++ qf_qtext q ++ 35 :: y) with (((A ++ M ++ T) ++ qf_qtext q) ++ 35 :: y)
        by (rewrite <- !app_assoc; reflexivity).
      rewrite nfirstn_app_len. unfold A. rewrite <- !app_assoc. destruct q; reflexivity.
    + rewrite app_nil_r. unfold A. rewrite <- !app_assoc. destruct q; reflexivity.
  - unfold b_before_query, noauth_url, serialize_url, spec_noauth_url, noauth_ser, noauth_pre.
    cbn [query_start fragment_start ser su_scheme su_username su_password su_host su_port su_path su_query
         su_fragment serialize_path set_query].
    fold T M A. rewrite <- EM. rewrite !app_nil_r. unfold qf_text.
    destruct q as [x|]; destruct f as [y|]; cbn [qf_qs qf_fs qf_qtext qf_ftext].
    + rewrite nfirstn_app_len. unfold A. rewrite <- !app_assoc. reflexivity.
    + rewrite nfirstn_app_len. unfold A. rewrite <- !app_assoc. reflexivity.
    + cbn [app]. replace (nlen (A ++ M ++ T) + nlen (@nil N)) with (nlen (A ++ M ++ T)) by (unfold nlen at 3; cbn [length]; lia).
      rewrite nfirstn_app_len. unfold A. rewrite <- !app_assoc. reflexivity.
    + cbn [app]. rewrite app_nil_r. unfold A. rewrite <- !app_assoc. reflexivity.
  - rewrite (cannot_be_a_base_eval _ W). cbn [has_opaque_path su_path spec_noauth_url]. do 2 f_equal.
    unfold noauth_url, noauth_ser, noauth_pre. cbn [ser scheme_end]. fold T M A.
    replace (nlen sch + 1) with (nlen A) by (unfold A; rewrite nlen_app; reflexivity).
    rewrite <- !app_assoc.
    assert (exists X, M ++ T ++ qf_text q f = 47 :: X) as [X EX].
    { unfold M, marker_of. destruct (starts_with s_ss T); [eexists; reflexivity|].
      destruct T as [|t0 T']; [discriminate|]. cbn [starts_with] in HT. rewrite andb_true_r in HT.
      apply N.eqb_eq in HT. subst t0. eexists. reflexivity. }
    rewrite EX. rewrite byte_eqb_app. reflexivity.
  - unfold b_scheme, noauth_url, noauth_ser, noauth_pre. cbn [scheme_end ser]. rewrite <- !app_assoc.
    apply nfirstn_app_len.
  - split; [intros H; discriminate H | intros _; cbn; repeat split; reflexivity].
Qed.

End NoAuthRelated.
