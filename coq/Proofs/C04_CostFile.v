(* Proofs/C04_CostFile.v - cost of the file-path conversions (url/src/lib.rs, cfg(unix): Url::from_file_path /
   from_directory_path / path_to_file_url_segments, Url::to_file_path / file_url_segments_to_pathbuf; model:
   Model/FilePath.v).
   Cost semantics of Model/Cost.v: Path::components() and split('/') examine every byte of their text once (size of the
   piece list), the percent-encoder and the percent-decoder are the twins pe_chunks_c / decode_c of Model/Cost.v (their
   counts include the bytes written), push = 1.  Step counts follow the data flow of the model.
     from_file_path_k p      <= 6 |p| + 10      (from_directory_path: two more steps)
     to_file_path_k u        <= 5 |u| + 14      in the length of the serialization
   Linear: every component / segment is encoded or decoded once. *)
From RU Require Import Base.Prelude Base.Utf8 Model.AsciiSet Gen.Tables Model.PercentEncoding Model.HostT Model.UrlRecord
  Model.Parser Model.Cost Model.FilePath Proofs.ListN.
From RU Require Import Proofs.C04_Cost Proofs.C04_CostMime Proofs.C04_CostRel.
From RU Require Proofs.C14_Views Proofs.C20_Path.

(* ---------------------------------------------------------------- Url::from_file_path *)
Fixpoint push_components_k (cs : list component) : N :=
  match cs with
  | [] => 1
  | c :: r => 2 + snd (pe_chunks_c T_SPECIAL_PATH_SEGMENT (component_bytes c)) + push_components_k r
  end.

Definition csize (cs : list component) : N := fold_right (fun c acc => nlen (component_bytes c) + 1 + acc) 0 cs.

Lemma push_components_k_le cs : push_components_k cs <= 5 * csize cs + 1.
Proof.
  induction cs as [|c r IH]; [cbn; lia|]. cbn [push_components_k csize fold_right]. fold (csize r).
  pose proof (pe_chunks_c_linear T_SPECIAL_PATH_SEGMENT (component_bytes c)). lia.
Qed.

Lemma component_of_piece_bytes c : component_bytes (component_of_piece c) = c.
Proof.
  unfold component_of_piece. destruct (piece_is_dotdot c) eqn:E; [|reflexivity].
  apply C20_Path.piece_is_dotdot_spec in E. subst c. reflexivity.
Qed.

Lemma csize_pieces ps : csize (map component_of_piece (filter keep_piece ps)) <= size ps.
Proof.
  induction ps as [|p r IH]; [cbn; lia|]. cbn [filter]. rewrite size_cons. destruct (keep_piece p); [|lia].
  cbn [map csize fold_right]. fold (csize (map component_of_piece (filter keep_piece r))).
  rewrite component_of_piece_bytes. lia.
Qed.

Definition from_file_path_k (p : list N) : N :=
  1 + (if path_is_absolute p then size (split_on 47 p) + push_components_k (tl (path_components p)) + 2 else 0).

Theorem from_file_path_k_le p : from_file_path_k p <= 6 * nlen p + 10.
Proof.
  unfold from_file_path_k. destruct (path_is_absolute p) eqn:E; [|lia].
  unfold path_components. rewrite E. cbn [tl]. rewrite size_split_on.
  pose proof (push_components_k_le (map component_of_piece (filter keep_piece (split_on 47 p)))) as H1.
  pose proof (csize_pieces (split_on 47 p)) as H2. rewrite size_split_on in H2. lia.
Qed.

(* ---------------------------------------------------------------- Url::to_file_path *)
Fixpoint push_decoded_k (segs : list (list N)) : N :=
  match segs with
  | [] => 1
  | s :: r => 2 + snd (decode_c s) + nlen (decode s) + push_decoded_k r
  end.
Lemma decode_len_le s : nlen (decode s) <= nlen s.
Proof.
  pose proof (proj1 (C14_Views.decode_length_bounds (length s) s (le_n _))). unfold nlen. lia.
Qed.
Lemma push_decoded_k_le segs : push_decoded_k segs <= 4 * size segs + 1.
Proof.
  induction segs as [|s r IH]; [cbn; lia|]. cbn [push_decoded_k]. rewrite size_cons.
  pose proof (decode_c_linear s). pose proof (decode_len_le s). lia.
Qed.

(* path_segments (the split iterator), the host test, the decoding loop, the drive-letter test and the assertion *)
Definition to_file_path_k (u : url) : N :=
  match path_segments u with
  | Some (Some segs) => size segs + 10 + push_decoded_k segs + 3
  | _ => 2
  end.

Lemma not47_match {A} (c : N) (r : list N) (f : list N -> A) (y : A) : c <> 47 ->
  match c :: r with 47 :: r' => f r' | _ => y end = y.
Proof.
  intros Hn. destruct c as [|c]; [reflexivity|].
  repeat (destruct c as [c|c|]; try reflexivity). exfalso. apply Hn. reflexivity.
Qed.

Lemma path_segments_size u segs : path_segments u = Some (Some segs) -> size segs <= nlen (ser u).
Proof.
  unfold path_segments. destruct (path u) as [p|] eqn:E; [|discriminate]. cbn [bindo].
  pose proof (path_len u p E) as H. destruct p as [|c r]; [discriminate|].
  destruct (N.eqb_spec c 47) as [->|Hn].
  - intros H1. inversion H1; subst. rewrite size_split_on. rewrite nlen_cons in H. lia.
  - rewrite (not47_match c r (fun r' => Some (Some (split_on 47 r'))) (Some None) Hn). discriminate.
Qed.

Theorem to_file_path_k_le u : to_file_path_k u <= 5 * nlen (ser u) + 14.
Proof.
  unfold to_file_path_k. destruct (path_segments u) as [[segs|]|] eqn:E; try lia.
  pose proof (path_segments_size u segs E). pose proof (push_decoded_k_le segs). lia.
Qed.
