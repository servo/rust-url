(* Proofs/C03_HostKindModel.v - the "views agree" clause for host() / host_str() / domain() / has_host() over histories:
     views3 hd u   : the three-way statement of C03_HostKindSteps.views_agree (abstract Display hd);
     views_model u : with the host MODEL's Display (a domain prints as itself) the uniform statement
                     host_str() = host().map(Display), has_host() = host().is_some(), domain() = the Domain payload.
   For every record of reach03j (parse of ANY text, joins against any reached record, the file-path constructors, all 19
   mutators outside the known classes excl03k - F-C02-9 is NOT excluded there) and of C02's Reachable3; with the host
   model under the only premise IdnaOK idna; and an executed history through the class F-C02-9. *)
From Coq Require Import String.
From RU Require Import Base.Prelude Model.HostT Model.Host Model.UrlRecord Model.Parser Proofs.C02_Reach Proofs.C02_Hist
  Proofs.C02_SetHostCanon Proofs.C02_Reach3 Proofs.C09_Host Proofs.C16_RT6Model Proofs.C05_Parser Proofs.C05_Setters
  Proofs.C05_Alphabet Proofs.C03_ReachParts Proofs.C03_ReachEx Proofs.C03_AuthEnd Proofs.C03_ReachJoin Proofs.C03_ReachModel Proofs.C03_HostKind
  Proofs.C03_HostKindSteps.
Open Scope N_scope.
Open Scope list_scope.

Definition views3 (hd : host -> list N) (u : url) : Prop :=
  (has_host u = false /\ host_of u = Some None /\ host_str u = Some None /\ domain u = Some None)
  \/ (has_host u = true /\ exists t, host_of u = Some (Some (HDomain t)) /\ host_str u = Some (Some t) /\ domain u = Some (Some t))
  \/ (has_host u = true /\ exists h, is_ip h /\ host_of u = Some (Some h) /\ host_str u = Some (Some (hd h)) /\ domain u = Some None).

Definition views_model (u : url) : Prop :=
  exists ho, host_of u = Some ho
    /\ host_str u = Some (option_map host_display ho)
    /\ has_host u = (match ho with Some _ => true | None => false end)
    /\ domain u = Some (match ho with Some (HDomain t) => Some t | _ => None end).

Lemma views3_model u : views3 host_display u -> views_model u.
Proof.
  intros [(A & B0 & C & D)|[(A & t & B0 & C & D)|(A & h & Hi & B0 & C & D)]].
  - exists None. repeat split; assumption.
  - exists (Some (HDomain t)). repeat split; assumption.
  - exists (Some h). repeat split; try assumption. destruct h as [d|a|p]; [destruct Hi | exact D | exact D].
Qed.

Theorem views_reach_joins dbg hp hpo hd : HostWf hp hpo hd -> NoEmpty hp -> IpWf hd ->
  forall u, reach03j dbg hp hpo hd u -> KT hd u /\ views3 hd u.
Proof.
  intros HW HNE HIPW u R. destruct (reach03j_inv03k dbg hp hpo hd HW HNE HIPW u R) as [(K & _) Ku].
  split; [exact Ku | exact (views_agree hd u (proj1 K) Ku)].
Qed.

Theorem views_reachable dbg hp hpo hd : HostWf hp hpo hd -> host_nonempty hp hpo -> IpWf hd -> HostOK hp hpo hd -> IpOKv hd ->
  forall u, Reachable3 dbg hp hpo hd u -> KT hd u /\ views3 hd u.
Proof.
  intros HW HNE HIPW HOK HIP u R. destruct (reach3_inv03k dbg hp hpo hd HW HNE HIPW HOK HIP u R) as [[(K & _) Ku] _].
  split; [exact Ku | exact (views_agree hd u (proj1 K) Ku)].
Qed.

Theorem views_reachable_model dbg idna : IdnaOK idna ->
  forall u, Reachable3 dbg (host_parse idna) host_parse_opaque host_display u -> views_model u.
Proof.
  intros OK u R. destruct (model_full_hyps idna OK) as (HW & HNE & HIPW & HOK & HIP).
  exact (views3_model u (proj2 (views_reachable dbg _ _ _ HW HNE HIPW HOK HIP u R))).
Qed.

Theorem views_reach_joins_model dbg idna : IdnaOK idna ->
  forall u, reach03j dbg (host_parse idna) host_parse_opaque host_display u -> views_model u.
Proof.
  intros OK u R. destruct (model_full_hyps idna OK) as (HW & HNE & HIPW & _ & _).
  exact (views3_model u (proj2 (views_reach_joins dbg _ _ _ HW (proj1 HNE) HIPW u R))).
Qed.

(* non-vacuity: a history through F-C02-9 on the host model *)
(* parse "a://h/p"; set_ip_host(127.0.0.1) - a call of the class F-C02-9 (V4 on a non-special scheme), NOT excluded in
   reach03j - gives "a://127.0.0.1/p" with the stored kind Ipv4(127.0.0.1): host_str() = "127.0.0.1" = Display(host()),
   although re-parsing that text yields a domain (the record is not a fixpoint of re-parsing: C02's finding) *)
Definition mhp1 := host_parse idna_clean.

Lemma model_joins_hyps : HostWf mhp1 host_parse_opaque host_display /\ NoEmpty mhp1 /\ IpWf host_display.
Proof.
  destruct (model_full_hyps idna_clean idna_clean_ok) as (HW & HNE & HIPW & _ & _).
  split; [exact HW|]. split; [exact (proj1 HNE) | exact HIPW].
Qed.

Definition kt_example_stmt : Prop :=
  exists u, reach03j true mhp1 host_parse_opaque host_display u
    /\ ser u = B "a://127.0.0.1/p" /\ hosti u = HI_Ipv4 2130706433
    /\ host_str u = Some (Some (B "127.0.0.1")) /\ host_of u = Some (Some (HIpv4 2130706433))
    /\ known_step2 true mhp1 host_parse_opaque host_display
         (mkUrl (B "a://h/p") 1 4 4 5 HI_Domain None 5 None None) (OSetIpHost (HIpv4 2130706433)) = true.

Lemma kt_example : kt_example_stmt.
Proof.
  destruct (parse_url true mhp1 host_parse_opaque host_display None None (B "a://h/p")) as [u0| |] eqn:E0;
    [|vm_compute in E0; discriminate ..].
  assert (reach03j true mhp1 host_parse_opaque host_display u0) as R0
    by exact (RJ_parse true mhp1 host_parse_opaque host_display None (B "a://h/p") u0 E0).
  vm_compute in E0. injection E0 as <-.
  hist_step RJ_step (OSetIpHost (HIpv4 2130706433)) lia.
  match goal with R : reach03j _ _ _ _ ?u |- _ => exists u; split; [exact R|] end. vm_compute. repeat split.
Qed.
