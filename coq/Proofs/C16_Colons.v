(* Proofs/C16_Colons.v - the parser fact on which the fuel of the blob recursion rests:
   for Url::parse without a base (the parser model, any Host::parse / Host::parse_opaque / Display for
   Host), the path of a result whose scheme is not "file" has no more ':' than the input that remained
   after the scheme, which has fewer ':' than the input.  Reasons, state by state:
     - utf8 decoding (chars()) never makes a ':' out of other bytes;
     - percent-encoding writes '%' and hex digits for what it encodes and copies the rest;
     - the path states only append (encoded input, '/'), or cut the serialization at a position that is
       not in front of the path (dot segments); only the drive-letter quirk of file URLs writes a ':'
       that was not in the input ("file:///C|/" -> "/C:/") - file URLs are excluded;
     - the "/." marker is put in FRONT of the path (path_start moves behind it);
     - the text written for the host (arbitrary here) is in front of the path.
   Also: the scheme slice of such a parse result is the parsed scheme (for every scheme type).
   The file ends with concrete runs (colons_example, colons_file_witness) on the stand-in host functions of
   Proofs/C16_Example.v, which is imported at that place. *)
From RU Require Import Base.Prelude Base.Utf8 Model.AsciiSet Gen.Tables Model.PercentEncoding
  Model.HostT Model.UrlRecord Model.Parser Model.Origin Proofs.ListN Proofs.C06_List
  Proofs.C16_Origin.

Lemma pbind_inv {A B} (x : pres A) (f : A -> pres B) b :
  pbind x f = POk b -> exists a, x = POk a /\ f a = POk b.
Proof. destruct x; cbn [pbind]; intros H; [eauto | discriminate | discriminate]. Qed.
Ltac pbi H a Ha := apply pbind_inv in H; destruct H as (a & Ha & H).

Lemma to_u32_val n m : to_u32 n = POk m -> m = n.
Proof. unfold to_u32. destruct (n <=? U32_MAX_P); intros H; [inversion H; reflexivity | discriminate]. Qed.

Lemma match47_if {A} (c : N) (a b : A) : (match c with 47 => a | _ => b end) = if c =? 47 then a else b.
Proof. destruct c as [|p]; [reflexivity|]. do 6 (destruct p as [p|p|]; try reflexivity). Qed.

Lemma count58_app a b : count58 (a ++ b) = (count58 a + count58 b)%nat.
Proof. induction a as [|x a IH]; cbn [app count58]; [reflexivity|]. rewrite IH. lia. Qed.

Lemma count58_rev l : count58 (rev l) = count58 l.
Proof. induction l as [|x l IH]; cbn [rev count58]; [reflexivity|]. rewrite count58_app, IH. cbn [count58]. lia. Qed.

Lemma count58_nfirstn n l : (count58 (nfirstn n l) <= count58 l)%nat.
Proof. apply count58_firstn. Qed.
Lemma count58_nskipn n l : (count58 (nskipn n l) <= count58 l)%nat.
Proof. apply count58_skipn. Qed.

Lemma count58_drop_while f l : (count58 (drop_while f l) <= count58 l)%nat.
Proof.
  induction l as [|c r IH]; cbn [drop_while]; [lia|]. destruct (f c); [|lia].
  cbn [count58]. lia.
Qed.

Lemma count58_trim f l : (count58 (trim_matches f l) <= count58 l)%nat.
Proof.
  unfold trim_matches. rewrite count58_rev.
  etransitivity; [apply count58_drop_while|]. rewrite count58_rev. apply count58_drop_while.
Qed.

Lemma count58_tail c l : (count58 l <= count58 (c :: l))%nat.
Proof. cbn [count58]. lia. Qed.

Lemma count58_cons_ne x l : x <> 58 -> count58 (x :: l) = count58 l.
Proof. intros H. cbn [count58]. replace (x =? 58) with false by lia. reflexivity. Qed.

(* chars() of a byte string: a byte that is not ASCII starts an item - a scalar value above 127 or U+FFFD -
   that is not ':'; decoding goes on in a suffix of the remaining bytes *)
Lemma lossy_step b r : 128 <= b -> exists c k, c <> 58 /\ utf8_lossy (b :: r) = c :: utf8_lossy (skipn k r).
Proof.
  intros Hb. unfold utf8_lossy. cbn [utf8_scan]. replace (b <? 128) with false by lia.
  assert (HR : REPLACEMENT <> 58) by (unfold REPLACEMENT; lia).
  destruct ((194 <=? b) && (b <=? 223)) eqn:E2.
  { destruct r as [|c1 r1]; [exists REPLACEMENT, 0%nat; split; [exact HR|reflexivity]|].
    destruct (is_cont c1) eqn:Ec1; [|exists REPLACEMENT, 0%nat; split; [exact HR|reflexivity]].
    eexists _, 1%nat. split; [|reflexivity]. unfold is_cont in Ec1. lia. }
  destruct ((224 <=? b) && (b <=? 239)) eqn:E3.
  { destruct r as [|c1 r1]; [exists REPLACEMENT, 0%nat; split; [exact HR|reflexivity]|].
    destruct (ok3 b c1) eqn:Eo; [|exists REPLACEMENT, 0%nat; split; [exact HR|reflexivity]].
    destruct r1 as [|c2 r2]; [exists REPLACEMENT, 1%nat; split; [exact HR|reflexivity]|].
    destruct (is_cont c2) eqn:Ec2; [|exists REPLACEMENT, 1%nat; split; [exact HR|reflexivity]].
    eexists _, 2%nat. split; [|reflexivity]. unfold ok3, is_cont in *. lia. }
  destruct ((240 <=? b) && (b <=? 244)) eqn:E4; [|exists REPLACEMENT, 0%nat; split; [exact HR|reflexivity]].
  destruct r as [|c1 r1]; [exists REPLACEMENT, 0%nat; split; [exact HR|reflexivity]|].
  destruct (ok4 b c1) eqn:Eo; [|exists REPLACEMENT, 0%nat; split; [exact HR|reflexivity]].
  destruct r1 as [|c2 r2]; [exists REPLACEMENT, 1%nat; split; [exact HR|reflexivity]|].
  destruct (is_cont c2) eqn:Ec2; [|exists REPLACEMENT, 1%nat; split; [exact HR|reflexivity]].
  destruct r2 as [|c3 r3]; [exists REPLACEMENT, 2%nat; split; [exact HR|reflexivity]|].
  destruct (is_cont c3) eqn:Ec3; [|exists REPLACEMENT, 2%nat; split; [exact HR|reflexivity]].
  eexists _, 3%nat. split; [|reflexivity]. unfold ok4, is_cont in *. lia.
Qed.

Lemma lossy_count58_len n : forall bs, (length bs <= n)%nat -> (count58 (utf8_lossy bs) <= count58 bs)%nat.
Proof.
  induction n as [|n IH]; intros [|b r] Hn; try (cbn; lia); cbn [length] in Hn; [lia|].
  destruct (N.ltb_spec b 128) as [Hlt|Hge].
  - unfold utf8_lossy. cbn [utf8_scan]. apply N.ltb_lt in Hlt. rewrite Hlt. cbn [map count58].
    specialize (IH r ltac:(lia)). unfold utf8_lossy in IH. lia.
  - destruct (lossy_step b r Hge) as (c & k & Hc & ->). rewrite (count58_cons_ne c), (count58_cons_ne b) by lia.
    etransitivity; [apply IH; rewrite skipn_length; lia|apply count58_skipn].
Qed.

Lemma lossy_count58 bs : (count58 (utf8_lossy bs) <= count58 bs)%nat.
Proof. apply (lossy_count58_len (length bs)). lia. Qed.

(* percent-encoding writes no ':' of its own *)
Lemma enc_table_no58 : count58 T_ENC_TABLE = O.
Proof. vm_compute. reflexivity. Qed.

Lemma enc_byte_no58 b : count58 (enc_byte b) = O.
Proof.
  unfold enc_byte. pose proof (count58_nfirstn T_ENC_WIDTH (nskipn (b * T_ENC_STRIDE) T_ENC_TABLE)) as H1.
  pose proof (count58_nskipn (b * T_ENC_STRIDE) T_ENC_TABLE) as H2. pose proof enc_table_no58 as H3.
  unfold nfirstn, nskipn in H1, H2. lia.
Qed.

Lemma span_keep_app S bs : forall u rest, span_keep S bs = (u, rest) -> bs = u ++ rest.
Proof.
  induction bs as [|b r IH]; intros u rest H; cbn [span_keep] in H.
  - inversion H. reflexivity.
  - destruct (should_encode S b); [inversion H; reflexivity|].
    destruct (span_keep S r) as [u' rest'] eqn:E. inversion H; subst. cbn [app]. f_equal. now apply IH.
Qed.

Lemma pe_next_count58 S bs c rest : pe_next S bs = Some (c, rest) -> (count58 c + count58 rest <= count58 bs)%nat.
Proof.
  unfold pe_next. destruct bs as [|b r]; [discriminate|].
  destruct (should_encode S b).
  - intros H. inversion H; subst. rewrite enc_byte_no58. cbn [count58]. lia.
  - destruct (span_keep S r) as [u rest'] eqn:E. intros H. inversion H; subst.
    apply span_keep_app in E. subst r. cbn [count58]. rewrite count58_app. lia.
Qed.

Lemma pe_chunks_count58 S f : forall bs, (count58 (concat (pe_chunks_f f S bs)) <= count58 bs)%nat.
Proof.
  induction f as [|f IH]; intros bs; cbn [pe_chunks_f]; [cbn; lia|].
  destruct (pe_next S bs) as [[c rest]|] eqn:E; [|cbn; lia].
  cbn [concat]. rewrite count58_app. pose proof (pe_next_count58 S bs c rest E). specialize (IH rest). lia.
Qed.

Lemma pe_display_count58 S bs : (count58 (pe_display S bs) <= count58 bs)%nat.
Proof. apply pe_chunks_count58. Qed.

Lemma utf8_encode1_count58 c : count58 (utf8_encode1 c) = count58 [c].
Proof.
  unfold utf8_encode1.
  destruct (c <? 128) eqn:E1; [reflexivity|].
  rewrite (count58_cons_ne c []) by lia.
  destruct (c <? 2048); [rewrite !count58_cons_ne by lia; reflexivity|].
  destruct (c <? 65536); rewrite !count58_cons_ne by lia; reflexivity.
Qed.

Lemma utf8_encode_count58 t : count58 (utf8_encode t) = count58 t.
Proof.
  unfold utf8_encode. induction t as [|c t IH]; [reflexivity|].
  cbn [flat_map]. rewrite count58_app, IH, utf8_encode1_count58. cbn [count58]. lia.
Qed.

Lemma push_encoded_shape S ser text :
  exists X, push_encoded S ser text = ser ++ X /\ (count58 X <= count58 text)%nat.
Proof.
  unfold push_encoded. eexists. split; [reflexivity|].
  etransitivity; [apply pe_display_count58|]. rewrite utf8_encode_count58. lia.
Qed.

(* rfind stays inside the list *)
Lemma rfind_aux_in b l : forall i0 last j, rfind_aux b l i0 last = Some j ->
  last = Some j \/ (i0 <= j /\ j < i0 + nlen l).
Proof.
  induction l as [|x r IH]; intros i0 last j H; cbn [rfind_aux] in H.
  - left. exact H.
  - apply IH in H. rewrite nlen_cons. destruct H as [H|H]; [|right; lia].
    destruct (x =? b); [inversion H; subst; right; lia | left; exact H].
Qed.
Lemma rfind_in b l j : rfind b l = Some j -> j < nlen l.
Proof. intros H. apply rfind_aux_in in H. destruct H as [H|H]; [discriminate | lia]. Qed.

(* the invariant of the path states *)
Section PathColons.
Variables (dbg : bool) (st : scheme_type) (ps : N) (pre : list N).
Hypothesis Hpre : nlen pre = ps.

(* the first ps bytes are `pre`; unless the scheme is file, at most k ':' from ps on *)
Definition CInv (k : nat) (ser : list N) : Prop :=
  nfirstn ps ser = pre /\ (st_is_file st = false -> (count58 (nskipn ps ser) <= k)%nat).

Lemma cinv_len k ser : CInv k ser -> ps <= nlen ser.
Proof.
  intros [H _]. assert (nlen (nfirstn ps ser) = ps) as E by (rewrite H; exact Hpre).
  unfold nlen, nfirstn in *. rewrite firstn_length in E. lia.
Qed.

Lemma cinv_mono k k' ser : CInv k ser -> (k <= k')%nat -> CInv k' ser.
Proof. intros [H1 H2] Hk. split; [exact H1|]. intros Hf. specialize (H2 Hf). lia. Qed.

Lemma cinv_app k ser x : CInv k ser -> CInv (k + count58 x) (ser ++ x).
Proof.
  intros H. pose proof (cinv_len k ser H) as L. destruct H as [H1 H2]. split.
  - rewrite nfirstn_app_le by exact L. exact H1.
  - intros Hf. specialize (H2 Hf). rewrite nskipn_app_le by lia. rewrite count58_app. lia.
Qed.

Lemma cinv_app0 k ser x : CInv k ser -> count58 x = O -> CInv k (ser ++ x).
Proof. intros H Hx. eapply cinv_mono; [apply cinv_app; exact H|lia]. Qed.

Lemma cinv_trunc k ser n : CInv k ser -> ps <= n -> CInv k (nfirstn n ser).
Proof.
  intros [H1 H2] Hn. split.
  - rewrite nfirstn_nfirstn by exact Hn. exact H1.
  - intros Hf. specialize (H2 Hf). replace n with (ps + (n - ps)) by lia. rewrite nskipn_nfirstn_comm.
    pose proof (count58_nfirstn (n - ps) (nskipn ps ser)). lia.
Qed.

Lemma cinv_push_pending ctx k ser pending : CInv k ser ->
  CInv (k + count58 pending) (push_pending ctx st ser pending).
Proof.
  intros H. unfold push_pending. destruct pending as [|c r]; [eapply cinv_mono; [exact H|lia]|].
  destruct (push_encoded_shape (path_set ctx st) ser (rev (c :: r))) as (X & -> & HX).
  rewrite count58_rev in HX. eapply cinv_mono; [apply cinv_app; exact H|lia].
Qed.

Lemma cinv_pop_path k ser s' : pop_path st ps ser = POk s' -> CInv k ser -> CInv k s'.
Proof.
  unfold pop_path. intros H I. destruct (ps <? nlen ser); [|inversion H; subst; exact I].
  destruct (rfind 47 (nskipn ps ser)) as [sp|]; [|discriminate].
  destruct (st_is_file st && is_normalized_wdl (nskipn (ps + sp + 1) ser)); inversion H; subst; [exact I|].
  unfold truncate. apply cinv_trunc; [exact I | lia].
Qed.

Lemma cinv_shorten_path k ser s' : shorten_path st ps ser = POk s' -> CInv k ser -> CInv k s'.
Proof.
  unfold shorten_path. intros H I. destruct (nlen ser =? ps); [inversion H; subst; exact I|].
  destruct (st_is_file st && is_normalized_wdl (nskipn ps ser)); [inversion H; subst; exact I|].
  eapply cinv_pop_path; eassumption.
Qed.

Lemma last_slash_lb s1 : last_slash_can_be_removed s1 ps = true -> ps + 1 <= nlen s1 - 1.
Proof.
  unfold last_slash_can_be_removed. destruct (rfind 47 (nfirstn (nlen s1 - 1) s1)) as [p|] eqn:E; [|discriminate].
  intros H. apply andb_true_iff in H. destruct H as [H _]. apply rfind_in in E.
  pose proof (nlen_nfirstn_le (nlen s1 - 1) s1). lia.
Qed.

Lemma cinv_finish_segment k ser seg_start ews hh s' hh' :
  finish_segment dbg st ps ser seg_start ews hh = POk (s', hh') -> CInv k ser -> ps <= seg_start -> CInv k s'.
Proof.
  unfold finish_segment. intros H I Hs.
  destruct (slice_o ser seg_start (if ews then nlen ser - 1 else nlen ser)) as [seg|]; cbn [of_option pbind] in H; [|discriminate].
  destruct (is_double_dot seg).
  - match type of H with pbind ?c _ = _ => destruct c as [[]| |]; cbn [pbind] in H; try discriminate end.
    set (s1 := truncate ser seg_start) in *.
    assert (CInv k s1) as I1 by (apply cinv_trunc; assumption).
    set (s2 := if ends_with_byte 47 s1 && last_slash_can_be_removed s1 ps then nfirstn (nlen s1 - 1) s1 else s1) in *.
    assert (CInv k s2) as I2.
    { subst s2. destruct (ends_with_byte 47 s1 && last_slash_can_be_removed s1 ps) eqn:E; [|exact I1].
      apply andb_true_iff in E. destruct E as [_ E]. apply last_slash_lb in E.
      apply cinv_trunc; [exact I1 | lia]. }
    destruct (shorten_path st ps s2) as [s3| |] eqn:E3; cbn [pbind] in H; try discriminate.
    pose proof (cinv_shorten_path _ _ _ E3 I2) as I3.
    inversion H; subst. destruct (ews && negb (ends_with_byte 47 s3)); [|exact I3].
    apply cinv_app0; [exact I3 | reflexivity].
  - destruct (is_single_dot seg).
    + inversion H; subst. assert (CInv k (truncate ser seg_start)) as I1 by (apply cinv_trunc; assumption).
      destruct (ends_with_byte 47 (truncate ser seg_start)); [exact I1|]. apply cinv_app0; [exact I1 | reflexivity].
    + destruct (st_is_file st) eqn:Ef; cbn [andb] in H; [|inversion H; subst; exact I].
      destruct ((seg_start =? ps + 1) && is_wdl seg); [|inversion H; subst; exact I].
      (* the drive-letter quirk: file URLs only, nothing is claimed about ':' there *)
      assert (forall x, CInv k x -> forall y, CInv k (x ++ y)) as Happ.
      { intros x Ix y. pose proof (cinv_app k x y Ix) as [J1 _]. split; [exact J1|]. intros Hf; congruence. }
      destruct seg as [|c r]; inversion H; subst; [exact I|].
      apply Happ. apply cinv_trunc; assumption.
Qed.

Lemma cinv_file_path_fixup k ser : CInv k ser -> CInv k (file_path_fixup st ps ser).
Proof.
  intros I. unfold file_path_fixup. destruct (st_is_file st) eqn:E; [|exact I].
  pose proof (cinv_len k ser I) as L. destruct I as [I1 I2].
  assert (nlen (nfirstn ps ser) = ps) as Lp by (apply nlen_nfirstn; lia).
  split; [|intros Hf; congruence].
  rewrite nfirstn_app_le by lia. rewrite nfirstn_nfirstn by lia. exact I1.
Qed.

(* the loop: the result satisfies the invariant with a count that, together with the ':' of the input that
   was not consumed, is at most what was there, pending and to come *)
Lemma cinv_loop ctx l : forall k ser seg_start pending hh s' hh' rem,
  parse_path_loop dbg ctx st ps l ser seg_start pending hh = POk (s', hh', rem) ->
  CInv k ser -> ps <= seg_start ->
  exists k', CInv k' s' /\ (k' + count58 rem <= k + count58 pending + count58 l)%nat.
Proof.
  induction l as [|c r IH]; intros k ser seg_start pending hh s' hh' rem H I Hs; cbn [parse_path_loop] in H.
  - destruct (finish_segment dbg st ps (push_pending ctx st ser pending) seg_start false hh) as [[s2 h2]| |] eqn:E;
      cbn [pbind] in H; try discriminate.
    inversion H; subst. exists (k + count58 pending)%nat. split; [|cbn [count58]; lia].
    apply cinv_file_path_fixup.
    eapply cinv_finish_segment; [exact E | apply cinv_push_pending; assumption | exact Hs].
  - destruct (is_tnl c) eqn:Et.
    { destruct (IH _ _ _ _ _ _ _ _ H (cinv_push_pending ctx k ser pending I) Hs) as (k' & I' & Hk').
      exists k'. split; [exact I'|]. cbn [count58] in *. lia. }
    destruct (negb (ctx_eqb ctx CPathSegmentSetter) && ((c =? 47) || (c =? 92) && st_is_special st)) eqn:Esl.
    { destruct (finish_segment dbg st ps (push_pending ctx st ser pending ++ [47]) seg_start true hh) as [[s2 h2]| |] eqn:E;
        cbn [pbind] in H; try discriminate.
      assert (CInv (k + count58 pending) s2) as I2.
      { eapply cinv_finish_segment; [exact E | | exact Hs]. apply cinv_app0; [apply cinv_push_pending; assumption | reflexivity]. }
      destruct (IH _ _ _ _ _ _ _ _ H I2 (cinv_len _ _ I2)) as (k' & I' & Hk').
      exists k'. split; [exact I'|]. cbn [count58] in *. lia. }
    destruct (((c =? 63) || (c =? 35)) && ctx_eqb ctx CUrlParser) eqn:Eqh.
    { destruct (finish_segment dbg st ps (push_pending ctx st ser pending) seg_start false hh) as [[s2 h2]| |] eqn:E;
        cbn [pbind] in H; try discriminate.
      inversion H; subst. exists (k + count58 pending)%nat. split; [|lia].
      apply cinv_file_path_fixup.
      eapply cinv_finish_segment; [exact E | apply cinv_push_pending; assumption | exact Hs]. }
    destruct (st_is_file st && (ps <? nlen ser) && is_normalized_wdl (nskipn (ps + 1) ser)).
    { assert (CInv (k + count58 pending) (push_pending ctx st ser pending ++ [47])) as I2
        by (apply cinv_app0; [apply cinv_push_pending; assumption | reflexivity]).
      destruct (IH _ _ _ _ _ _ _ _ H I2 ltac:(lia)) as (k' & I' & Hk').
      exists k'. split; [exact I'|]. cbn [count58] in *. lia. }
    destruct (IH _ _ _ _ _ _ _ _ H I Hs) as (k' & I' & Hk').
    exists k'. split; [exact I'|]. cbn [count58] in *. lia.
Qed.

End PathColons.

(* the states before the path: the remaining input never gains a ':' *)
Lemma inp_next_count58 l c r : inp_next l = Some (c, r) -> (count58 (c :: r) <= count58 l)%nat.
Proof.
  unfold inp_next. pose proof (count58_drop_while is_tnl l) as H0.
  destruct (drop_while is_tnl l) as [|d r']; [discriminate|]. intros H; inversion H; subst. exact H0.
Qed.

Lemma inp_next_rest l c r : inp_next l = Some (c, r) -> (count58 r <= count58 l)%nat.
Proof. intros H. apply inp_next_count58 in H. cbn [count58] in H. lia. Qed.

Lemma inp_split_first_count58 l mc rem : inp_split_first l = (mc, rem) -> (count58 rem <= count58 l)%nat.
Proof.
  unfold inp_split_first. destruct (inp_next l) as [[c r]|] eqn:E; intros H; inversion H; subst.
  - eapply inp_next_rest; eassumption.
  - cbn [count58]. lia.
Qed.

Lemma inp_split_prefix_char_count58 c l r : inp_split_prefix_char c l = Some r -> (count58 r <= count58 l)%nat.
Proof.
  unfold inp_split_prefix_char. destruct (inp_next l) as [[d r']|] eqn:E; [|discriminate].
  destruct (d =? c); [|discriminate]. intros H; inversion H; subst. eapply inp_next_rest; eassumption.
Qed.

Lemma inp_split_prefix_str_count58 p : forall l r, inp_split_prefix_str p l = Some r -> (count58 r <= count58 l)%nat.
Proof.
  induction p as [|c p IH]; intros l r H; cbn [inp_split_prefix_str] in H.
  - inversion H; subst. lia.
  - destruct (inp_next l) as [[d r']|] eqn:E; [|discriminate]. destruct (d =? c); [|discriminate].
    apply IH in H. apply inp_next_rest in E. lia.
Qed.

Lemma inp_count_matching_count58 f l : forall n rem, inp_count_matching f l = (n, rem) -> (count58 rem <= count58 l)%nat.
Proof.
  induction l as [|c r IH]; intros n rem H; cbn [inp_count_matching] in H.
  - inversion H; subst. lia.
  - pose proof (count58_tail c r) as Hr.
    destruct (is_tnl c).
    + destruct (inp_count_matching f r) as [n0 rem0] eqn:E. specialize (IH _ _ eq_refl).
      destruct n0 as [|q]; inversion H; subst; lia.
    + destruct (f c).
      * destruct (inp_count_matching f r) as [n0 rem0] eqn:E. specialize (IH _ _ eq_refl). inversion H; subst. lia.
      * inversion H; subst. lia.
Qed.

(* the scheme state consumes its ':' *)
Lemma parse_scheme_loop_count58 l : forall acc s r,
  parse_scheme_loop CUrlParser acc l = Some (s, r) -> (count58 r < count58 l)%nat.
Proof.
  induction l as [|c l IH]; intros acc s r H; cbn [parse_scheme_loop ctx_eqb] in H; [discriminate|].
  pose proof (count58_tail c l) as Hr.
  destruct (is_tnl c); [apply IH in H; lia|].
  destruct (is_lower c || is_digit c || (c =? 43) || (c =? 45) || (c =? 46)); [apply IH in H; lia|].
  destruct (is_upper c); [apply IH in H; lia|].
  destruct (c =? 58) eqn:E; [|discriminate]. inversion H; subst. cbn [count58]. rewrite E. lia.
Qed.

Lemma parse_scheme_count58 l s r : parse_scheme CUrlParser l = Some (s, r) -> (count58 r < count58 l)%nat.
Proof. unfold parse_scheme. destruct (inp_starts_with_pred is_alpha l); [apply parse_scheme_loop_count58|discriminate]. Qed.

Lemma scan_last_at_count58 sp l : forall cnt last n r, scan_last_at sp l cnt last = Some (n, r) ->
  last = Some (n, r) \/ (count58 r <= count58 l)%nat.
Proof.
  induction l as [|c l IH]; intros cnt last n r H; cbn [scan_last_at] in H; [left; exact H|].
  pose proof (count58_tail c l) as Hr.
  destruct (is_tnl c); [apply IH in H; destruct H; [left; assumption|right; lia]|].
  destruct (c =? 64).
  { apply IH in H. destruct H as [H|H]; [inversion H; subst; right; lia|right; lia]. }
  destruct ((c =? 47) || (c =? 63) || (c =? 35) || (c =? 92) && sp); [left; exact H|].
  apply IH in H. destruct H; [left; assumption|right; lia].
Qed.

Lemma userinfo_loop_app l : forall n ser uend hpw hun s' uend' hpw' hun',
  userinfo_loop l n ser uend hpw hun = POk (s', uend', hpw', hun') -> exists X, s' = ser ++ X.
Proof.
  induction l as [|c l IH]; intros n ser uend hpw hun s' uend' hpw' hun' H; cbn [userinfo_loop] in H.
  - destruct (n =? 0); [|discriminate]. inversion H; subst. exists []. now rewrite app_nil_r.
  - destruct (n =? 0); [inversion H; subst; exists []; now rewrite app_nil_r|].
    destruct (is_tnl c); [eapply IH; exact H|]. cbv zeta in H.
    destruct ((c =? 58) && match uend with None => true | Some _ => false end).
    + pbi H ue Hue. destruct (0 <? n - 1).
      * apply IH in H. destruct H as [X ->]. exists ([58] ++ X). now rewrite app_assoc.
      * eapply IH; exact H.
    + destruct (push_encoded_shape T_USERINFO ser [c]) as (Y & HY & _). rewrite HY in H.
      apply IH in H. destruct H as [X ->]. exists (Y ++ X). now rewrite app_assoc.
Qed.

Lemma parse_userinfo_shape st ser l ser1 ue rem :
  parse_userinfo st ser l = POk (ser1, ue, rem) ->
  (exists X, ser1 = ser ++ X) /\ (count58 rem <= count58 l)%nat.
Proof.
  unfold parse_userinfo. destruct (scan_last_at (st_is_special st) l 0 None) as [[n remaining]|] eqn:E.
  - apply scan_last_at_count58 in E. destruct E as [E|E]; [discriminate|].
    destruct n as [|q].
    + destruct (inp_next remaining) as [[c r]|]; [|discriminate].
      destruct ((c =? 47) || (c =? 63) || (c =? 35) || st_is_special st && (c =? 92)); [discriminate|].
      intros H. pbi H ue0 Hue. inversion H; subst. split; [exists []; now rewrite app_nil_r|exact E].
    + intros H. pbi H a Ha. destruct a as [[[s1 uend] hpw] hun]. pbi H ue0 Hue. inversion H; subst.
      split; [|exact E]. apply userinfo_loop_app in Ha. destruct Ha as [X ->].
      destruct (hun || hpw); [exists (X ++ [64]); now rewrite app_assoc|exists X; reflexivity].
  - intros H. pbi H ue0 Hue. inversion H; subst. split; [exists []; now rewrite app_nil_r|lia].
Qed.

Lemma host_scan_count58 sp l : forall inside acc h rem,
  host_scan sp inside acc l = (h, rem) -> (count58 rem <= count58 l)%nat.
Proof.
  induction l as [|c l IH]; intros inside acc h rem H; cbn [host_scan] in H; [inversion H; subst; lia|].
  pose proof (count58_tail c l) as Hr.
  destruct (is_tnl c); [apply IH in H; lia|].
  destruct ((c =? 58) && negb inside || (c =? 92) && sp || (c =? 47) || (c =? 63) || (c =? 35));
    [inversion H; subst; lia|].
  destruct (c =? 91); [apply IH in H; lia|]. destruct (c =? 93); apply IH in H; lia.
Qed.

Lemma file_host_scan_count58 l : forall acc h rem, file_host_scan acc l = (h, rem) -> (count58 rem <= count58 l)%nat.
Proof.
  induction l as [|c l IH]; intros acc h rem H; cbn [file_host_scan] in H; [inversion H; subst; lia|].
  pose proof (count58_tail c l) as Hr.
  destruct (is_tnl c); [apply IH in H; lia|]. destruct (is_path_end c); [inversion H; subst; lia|apply IH in H; lia].
Qed.

Lemma file_host_count58 l h rem : file_host l = (h, rem) -> (count58 rem <= count58 l)%nat.
Proof.
  unfold file_host. destruct (file_host_scan [] l) as [h0 rem0] eqn:E. apply file_host_scan_count58 in E.
  destruct (is_wdl h0); intros H; inversion H; subst; lia.
Qed.

Section HostStates.
Variable dbg : bool.
Variable hp ho : list N -> result host.
Variable hd : host -> list N.

Lemma parse_host_count58 st l h rem : parse_host hp ho st l = POk (h, rem) -> (count58 rem <= count58 l)%nat.
Proof.
  unfold parse_host, get_file_host. destruct (st_is_file st).
  - destruct (file_host l) as [t rem0] eqn:E. apply file_host_count58 in E.
    intros H. pbi H x Hx. inversion H; subst. exact E.
  - destruct (host_scan (st_is_special st) false [] l) as [t rem0] eqn:E. apply host_scan_count58 in E.
    destruct (scheme_type_eqb st STSpecialNotFile && match t with [] => true | _ => false end); [discriminate|].
    destruct (negb (st_is_special st)); intros H; pbi H x Hx; inversion H; subst; exact E.
Qed.

Lemma parse_port_loop_count58 ctx l : forall p any p' any' rem,
  parse_port_loop ctx l p any = POk (p', any', rem) -> (count58 rem <= count58 l)%nat.
Proof.
  induction l as [|c l IH]; intros p any p' any' rem H; cbn [parse_port_loop] in H; [inversion H; subst; lia|].
  pose proof (count58_tail c l) as Hr.
  destruct (is_tnl c); [apply IH in H; lia|].
  destruct (is_digit c).
  - cbv zeta in H. destruct (65535 <? p * 10 + (c - 48)); [discriminate|]. apply IH in H. lia.
  - destruct (ctx_eqb ctx CUrlParser && negb (is_path_end c)); [discriminate|]. inversion H; subst. lia.
Qed.

Lemma parse_port_count58 ctx d l port rem : parse_port ctx d l = POk (port, rem) -> (count58 rem <= count58 l)%nat.
Proof.
  unfold parse_port. intros H. pbi H a Ha. destruct a as [[p any] rem0]. apply parse_port_loop_count58 in Ha.
  destruct (negb any && ctx_eqb ctx CSetter && negb (inp_is_empty rem0)); [discriminate|]. inversion H; subst. exact Ha.
Qed.

Lemma parse_host_and_port_shape ctx st se ser l ser2 he hi port rem :
  parse_host_and_port hp ho hd ctx st se ser l = POk (ser2, he, hi, port, rem) ->
  (exists X, ser2 = ser ++ X) /\ (count58 rem <= count58 l)%nat.
Proof.
  unfold parse_host_and_port. intros H. pbi H a Ha. destruct a as [h remaining]. apply parse_host_count58 in Ha.
  cbv zeta in H. pbi H he0 Hhe. pbi H u0 Hu0.
  destruct (inp_split_prefix_char 58 remaining) as [rem1|] eqn:E.
  - apply inp_split_prefix_char_count58 in E. pbi H b Hb. destruct b as [port0 rem2]. apply parse_port_count58 in Hb.
    inversion H; subst. split; [|lia].
    destruct port; [eexists; rewrite <- app_assoc; reflexivity|eexists; reflexivity].
  - inversion H; subst. split; [eexists; reflexivity|lia].
Qed.

Lemma cinv_init st ser : CInv st (nlen ser) ser 0 ser.
Proof.
  split; [apply nfirstn_all; lia|]. intros _. rewrite nskipn_all by lia. cbn [count58]. lia.
Qed.

Lemma parse_path_cinv ctx st hh ps pre ser l s' hh' rem k : nlen pre = ps ->
  parse_path dbg ctx st hh ps ser l = POk (s', hh', rem) -> CInv st ps pre k ser ->
  exists k', CInv st ps pre k' s' /\ (k' + count58 rem <= k + count58 l)%nat.
Proof.
  intros Hpre H I. unfold parse_path in H.
  destruct (cinv_loop dbg st ps pre Hpre ctx l _ _ _ _ _ _ _ _ H I (cinv_len st ps pre Hpre _ _ I)) as (k' & I' & Hk').
  exists k'. split; [exact I'|]. cbn [count58] in Hk'. lia.
Qed.

Lemma parse_path_start_cinv ctx st hh ser l s' hh' rem :
  parse_path_start dbg ctx st hh ser l = POk (s', hh', rem) ->
  exists k', CInv st (nlen ser) ser k' s' /\ (k' + count58 rem <= count58 l)%nat.
Proof.
  unfold parse_path_start. cbv zeta. destruct (inp_split_first l) as [mc remaining] eqn:E.
  apply inp_split_first_count58 in E.
  pose proof (cinv_init st ser) as I0.
  assert (CInv st (nlen ser) ser 0 (ser ++ [47])) as I1 by (apply cinv_app0; [reflexivity|exact I0|reflexivity]).
  assert (forall s0 l0, CInv st (nlen ser) ser 0 s0 -> (count58 l0 <= count58 l)%nat ->
            parse_path dbg ctx st hh (nlen ser) s0 l0 = POk (s', hh', rem) ->
            exists k', CInv st (nlen ser) ser k' s' /\ (k' + count58 rem <= count58 l)%nat) as Hgo.
  { intros s0 l0 Is0 Hl0 H. destruct (parse_path_cinv ctx st hh _ ser s0 l0 s' hh' rem 0%nat eq_refl H Is0) as (k' & I' & Hk').
    exists k'. split; [exact I'|lia]. }
  destruct (st_is_special st).
  - destruct (negb (ends_with_byte 47 ser)).
    + destruct mc as [c|]; [destruct (is_slash_or_bslash c)|]; apply Hgo; try assumption; lia.
    + apply Hgo; [assumption|lia].
  - destruct mc as [c|].
    + destruct ((c =? 63) || (c =? 35)).
      * intros H. inversion H; subst. exists 0%nat. split; [exact I0|lia].
      * destruct (c =? 47); apply Hgo; try assumption; lia.
    + apply Hgo; [assumption|lia].
Qed.

Lemma parse_cbb_shape ctx l : forall ser ser1 rem,
  parse_cannot_be_a_base_path ctx ser l = (ser1, rem) ->
  exists X, ser1 = ser ++ X /\ (count58 X + count58 rem <= count58 l)%nat.
Proof.
  induction l as [|c l IH]; intros ser ser1 rem H; cbn [parse_cannot_be_a_base_path] in H.
  - inversion H; subst. exists []. rewrite app_nil_r. split; [reflexivity|cbn [count58]; lia].
  - pose proof (count58_tail c l) as Hr.
    destruct (is_tnl c).
    + apply IH in H. destruct H as (X & -> & HX). exists X. split; [reflexivity|lia].
    + destruct (((c =? 63) || (c =? 35)) && ctx_eqb ctx CUrlParser).
      * inversion H; subst. exists []. rewrite app_nil_r. split; [reflexivity|cbn [count58]; lia].
      * destruct (push_encoded_shape T_CONTROLS ser [c]) as (Y & HY & HYc). rewrite HY in H.
        apply IH in H. destruct H as (X & -> & HX). exists (Y ++ X). rewrite app_assoc. split; [reflexivity|].
        rewrite count58_app. cbn [count58] in *. lia.
Qed.

(* query and fragment only append *)
Lemma parse_fragment_loop_app l : forall ser pr, exists X, parse_fragment_loop ser pr l = ser ++ X.
Proof.
  induction l as [|c l IH]; intros ser pr; cbn [parse_fragment_loop].
  - destruct pr; [exists []; now rewrite app_nil_r|eexists; reflexivity].
  - destruct (is_tnl c); [|apply IH]. destruct (IH (flush_part T_FRAGMENT utf8_encode ser pr) []) as [X HX].
    rewrite HX. unfold flush_part. rewrite <- app_assoc. eexists; reflexivity.
Qed.

Lemma parse_query_loop_app set enc iup l : forall ser pr, exists X, fst (parse_query_loop set enc iup ser pr l) = ser ++ X.
Proof.
  induction l as [|c l IH]; intros ser pr; cbn [parse_query_loop].
  - cbn [fst]. destruct pr; [exists []; now rewrite app_nil_r|eexists; reflexivity].
  - destruct (is_tnl c).
    + destruct (IH (flush_part set enc ser pr) []) as [X HX]. rewrite HX. unfold flush_part. rewrite <- app_assoc. eexists; reflexivity.
    + destruct ((c =? 35) && iup); [cbn [fst]; eexists; reflexivity|apply IH].
Qed.

Definition qf_at (n : N) (X : list N) (qs fs : option N) : Prop :=
  match qs, fs with
  | None, None => X = []
  | Some i, _ | None, Some i => i = n
  end.

Lemma pqf_shape ovr ctx st se ser l s2 qs fs :
  parse_query_and_fragment ovr ctx st se ser l = POk (s2, qs, fs) ->
  exists X, s2 = ser ++ X /\ qf_at (nlen ser) X qs fs.
Proof.
  unfold parse_query_and_fragment. destruct (inp_next l) as [[c r]|].
  2:{ intros H. inversion H; subst. exists []. rewrite app_nil_r. split; reflexivity. }
  destruct (c =? 35).
  { intros H. pbi H f0 Hf0. apply to_u32_val in Hf0. inversion H; subst. unfold parse_fragment.
    destruct (parse_fragment_loop_app r (ser ++ [35]) []) as [X ->]. rewrite <- app_assoc. eexists. split; reflexivity. }
  destruct (c =? 63); [|discriminate]. intros H. pbi H q0 Hq0. apply to_u32_val in Hq0.
  unfold parse_query in H.
  destruct (parse_query_loop_app (query_set st) (query_enc ovr (nfirstn se (ser ++ [63]))) (ctx_eqb ctx CUrlParser) r (ser ++ [63]) [])
    as [X HX].
  destruct (parse_query_loop _ _ _ _ _ r) as [ser1 rem2]. cbn [fst] in HX. subst ser1.
  destruct rem2 as [r2|].
  - pbi H f0 Hf0. inversion H; subst. unfold parse_fragment.
    destruct (parse_fragment_loop_app r2 (((ser ++ [63]) ++ X) ++ [35]) []) as [Y ->].
    rewrite <- !app_assoc. eexists. split; reflexivity.
  - inversion H; subst. rewrite <- app_assoc. eexists. split; reflexivity.
Qed.

(* the path slice of a record whose serialization is  s1 ++ X  with the query / fragment (if any) at |s1| *)
Lemma path_of_parts s1 X se ue hs he hi port ps1 qs fs p' :
  ps1 <= nlen s1 -> qf_at (nlen s1) X qs fs ->
  path (mkUrl (s1 ++ X) se ue hs he hi port ps1 qs fs) = Some p' -> p' = nskipn ps1 s1.
Proof.
  intros Hps Hqf. unfold path, u_slice_from, u_slice, slice_from_o, slice_o. cbn [query_start fragment_start ser path_start].
  assert (Hcut : nfirstn (nlen s1 - ps1) (nskipn ps1 (s1 ++ X)) = nskipn ps1 s1).
  { rewrite nskipn_app_le by exact Hps. rewrite <- (nlen_nskipn ps1 s1). apply nfirstn_app_exact. }
  unfold qf_at in Hqf. destruct qs as [q|], fs as [f|]; subst.
  - destruct ((ps1 <=? nlen s1) && (nlen s1 <=? nlen (s1 ++ X))); intros H; inversion H. exact Hcut.
  - destruct ((ps1 <=? nlen s1) && (nlen s1 <=? nlen (s1 ++ X))); intros H; inversion H. exact Hcut.
  - destruct ((ps1 <=? nlen s1) && (nlen s1 <=? nlen (s1 ++ X))); intros H; inversion H. exact Hcut.
  - rewrite app_nil_r. destruct (ps1 <=? nlen s1); intros H; inversion H. reflexivity.
Qed.

Lemma scheme_of_parts s1 X se ue hs he hi port ps1 qs fs :
  se <= nlen s1 -> scheme (mkUrl (s1 ++ X) se ue hs he hi port ps1 qs fs) = Some (nfirstn se s1).
Proof.
  intros Hse. unfold scheme, u_slice_to. cbn [ser scheme_end].
  rewrite slice_to_o_some by (rewrite nlen_app; lia). rewrite nfirstn_app_le by exact Hse. reflexivity.
Qed.

(* with_query_and_fragment first adjusts the "/." marker, in one of three ways (Hmain in the proof):
   ps = se+1 and the path starts "//": "/." is inserted in front of the path and ps moves behind it;
   ps = se+3 and ":/." stands in front of the path: unless the path starts "//", the "/." is cut out and ps
   moves back by 2; otherwise nothing is changed.  In every case the first se bytes and the bytes from the
   path start on are the same as before; pqf_shape then only appends *)
Lemma wqf_shape ovr ctx st se ue hs he hi port ps ser rem u :
  with_query_and_fragment ovr ctx st se ue hs he hi port ps ser rem = POk u -> ps <= nlen ser -> se <= nlen ser ->
  scheme u = Some (nfirstn se ser)
  /\ (forall p', path u = Some p' -> p' = nskipn ps ser).
Proof.
  unfold with_query_and_fragment. intros H Hps Hse. pbi H a Ha. destruct a as [ser1 ps1].
  pbi H b Hb. destruct b as [[ser2 qs] fs]. inversion H; subst. clear H.
  apply pqf_shape in Hb. destruct Hb as (X & -> & Hqf).
  assert (Lp : nlen (nfirstn ps ser) = ps) by (apply nlen_nfirstn; exact Hps).
  assert (Ls : nlen (nfirstn se ser) = se) by (apply nlen_nfirstn; exact Hse).
  assert (Hmain : ps1 <= nlen ser1 /\ se <= nlen ser1 /\ nfirstn se ser1 = nfirstn se ser /\ nskipn ps1 ser1 = nskipn ps ser).
  { destruct (ps =? se + 1) eqn:E1.
    - apply N.eqb_eq in E1.
      destruct (starts_with s_ss (nskipn ps ser)).
      + pbi Ha u0 Hu0. inversion Ha; subst ser1 ps1. change (47 :: 46 :: nskipn ps ser) with ([47; 46] ++ nskipn ps ser). rewrite !nlen_app, Lp. change (nlen [47; 46]) with 2. rewrite nlen_nskipn.
        split; [lia|]. split; [lia|]. split.
        * rewrite nfirstn_app_le by lia. apply nfirstn_nfirstn. lia.
        * rewrite nskipn_app_ge by lia. rewrite Lp. replace (ps + 2 - ps) with (nlen [47; 46]) by (change (nlen [47; 46]) with 2; lia).
          apply nskipn_app_exact.
      + pbi Ha u0 Hu0. inversion Ha; subst ser1 ps1. auto.
    - destruct ((ps =? se + 3) && list_eqb (nfirstn (ps - se) (nskipn se ser)) [58; 47; 46]) eqn:E2.
      + apply andb_true_iff in E2. destruct E2 as [E2 _]. apply N.eqb_eq in E2.
        pbi Ha u0 Hu0.
        (* the marker is removed unless '/' follows it *)
        destruct (nnth ser (ps + 1)) as [b|]; [rewrite match47_if in Ha; destruct (b =? 47)|];
          pbi Ha u1 Hu1; inversion Ha; subst ser1 ps1; [auto|..];
          (change (58 :: nskipn ps ser) with ([58] ++ nskipn ps ser); rewrite !nlen_app, Ls; change (nlen [58]) with 1; rewrite nlen_nskipn;
           split; [lia|]; split; [lia|]; split; [rewrite nfirstn_app_le by lia; apply nfirstn_nfirstn; lia|];
           rewrite app_assoc;
           replace (ps - 2) with (nlen (nfirstn se ser ++ [58])) by (rewrite nlen_app, Ls; change (nlen [58]) with 1; lia);
           apply nskipn_app_exact).
      + inversion Ha; subst ser1 ps1. auto. }
  destruct Hmain as (H1 & H2 & H3 & H4). split.
  - rewrite scheme_of_parts by exact H2. rewrite H3. reflexivity.
  - intros p' Hp. apply path_of_parts in Hp; [|exact H1|exact Hqf]. congruence.
Qed.

(* the record built by with_query_and_fragment from a serialization that satisfies CInv *)
Lemma tail_shape ovr ctx st se ue hs he hi port ps pre k ser rem u :
  with_query_and_fragment ovr ctx st se ue hs he hi port ps ser rem = POk u ->
  nlen pre = ps -> CInv st ps pre k ser -> se <= ps -> st_is_file st = false ->
  scheme u = Some (nfirstn se pre)
  /\ (forall p', path u = Some p' -> (count58 p' <= k)%nat).
Proof.
  intros H Hpre I Hse Hf. pose proof (cinv_len st ps pre Hpre k ser I) as L.
  destruct (wqf_shape _ _ _ _ _ _ _ _ _ _ _ _ _ H L ltac:(lia)) as [H1 H2]. destruct I as [I1 I2]. split.
  - rewrite H1, <- I1, nfirstn_nfirstn by exact Hse. reflexivity.
  - intros p' Hp. rewrite (H2 p' Hp). apply I2. exact Hf.
Qed.

Lemma cinv_prefix st ps pre k ser se : nlen pre = ps -> CInv st ps pre k ser -> se <= ps -> nfirstn se ser = nfirstn se pre.
Proof. intros Hpre [I1 _] Hse. rewrite <- I1. symmetry. apply nfirstn_nfirstn. exact Hse. Qed.

Lemma after_double_slash_shape ovr ctx st se ser l u :
  after_double_slash dbg hp ho hd ovr ctx st se ser l = POk u -> st_is_file st = false -> se <= nlen ser ->
  scheme u = Some (nfirstn se ser)
  /\ (forall p', path u = Some p' -> (count58 p' <= count58 l)%nat).
Proof.
  unfold after_double_slash. cbv zeta. intros H Hf Hse.
  pbi H a Ha. destruct a as [[ser1 ue] remaining]. apply parse_userinfo_shape in Ha. destruct Ha as [[X1 ->] Hr1].
  pbi H hs Hhs. pbi H b Hb. destruct b as [[[[ser2 he] hi] port] remaining2].
  apply parse_host_and_port_shape in Hb. destruct Hb as [[X2 ->] Hr2].
  destruct (hi_eqb hi HI_None && negb (nlen (ser ++ [47; 47]) =? nlen ((ser ++ [47; 47]) ++ X1))); [discriminate|].
  pbi H ps Hps. apply to_u32_val in Hps. subst ps.
  pbi H c Hc. destruct c as [[ser3 hh3] remaining3].
  apply parse_path_start_cinv in Hc. destruct Hc as (k' & I' & Hk').
  set (ser2 := ((ser ++ [47; 47]) ++ X1) ++ X2) in *.
  assert (Hle : se <= nlen ser2) by (unfold ser2; rewrite !nlen_app; lia).
  destruct (tail_shape _ _ _ _ _ _ _ _ _ _ ser2 k' _ _ _ H eq_refl I' Hle Hf) as [H1 H2]. split.
  - rewrite H1. unfold ser2. rewrite <- !app_assoc, nfirstn_app_le by exact Hse. reflexivity.
  - intros p' Hp. specialize (H2 p' Hp). lia.
Qed.

Lemma parse_non_special_shape ovr ctx st se ser l u :
  parse_non_special dbg hp ho hd ovr ctx st se ser l = POk u -> st_is_file st = false -> se <= nlen ser ->
  scheme u = Some (nfirstn se ser)
  /\ (forall p', path u = Some p' -> (count58 p' <= count58 l)%nat).
Proof.
  unfold parse_non_special. intros H Hf Hse.
  destruct (inp_split_prefix_str s_ss l) as [rem|] eqn:E.
  - apply inp_split_prefix_str_count58 in E.
    destruct (after_double_slash_shape _ _ _ _ _ _ _ H Hf Hse) as [H1 H2]. split; [exact H1|].
    intros p' Hp. specialize (H2 p' Hp). lia.
  - pbi H ps Hps. apply to_u32_val in Hps. subst ps. pbi H a Ha. destruct a as [ser1 remaining].
    assert (exists k', CInv st (nlen ser) ser k' ser1 /\ (k' + count58 remaining <= count58 l)%nat) as (k' & I' & Hk').
    { destruct (inp_split_prefix_char 47 l) as [rem|] eqn:E2.
      - apply inp_split_prefix_char_count58 in E2. pbi Ha b Hb. destruct b as [[s0 hh0] r0]. inversion Ha; subst.
        assert (CInv st (nlen ser) ser 0 (ser ++ [47])) as I1 by (apply cinv_app0; [reflexivity|apply cinv_init|reflexivity]).
        destruct (parse_path_cinv _ _ _ _ _ _ _ _ _ _ _ eq_refl Hb I1) as (k' & I' & Hk').
        exists k'. split; [exact I'|lia].
      - inversion Ha as [Hcbb]. apply parse_cbb_shape in Hcbb. destruct Hcbb as (X & -> & HX).
        exists (0 + count58 X)%nat. split; [apply cinv_app; [reflexivity|apply cinv_init]|lia]. }
    destruct (tail_shape _ _ _ _ _ _ _ _ _ _ ser k' _ _ _ H eq_refl I' Hse Hf) as [H1 H2]. split; [exact H1|].
    intros p' Hp. specialize (H2 p' Hp). lia.
Qed.

(* file URLs (no base): the scheme slice, and no port *)
Lemma parse_file_host_app ser l ser1 flag hi rem :
  parse_file_host hp hd ser l = POk (ser1, flag, hi, rem) -> exists X, ser1 = ser ++ X.
Proof.
  unfold parse_file_host. destruct (file_host l) as [h rem0]. destruct h as [|c t].
  - intros H. inversion H; subst. exists []. now rewrite app_nil_r.
  - intros H. pbi H hst Hh. destruct hst as [d|a|pc].
    + destruct (list_eqb d s_localhost); inversion H; subst; [exists []; now rewrite app_nil_r|eexists; reflexivity].
    + inversion H; subst. eexists; reflexivity.
    + inversion H; subst. eexists; reflexivity.
Qed.

Lemma file_scheme_of s W hs he hi qs fs :
  nfirstn 7 s = s_file_css -> scheme (file_url (s ++ W) hs he hi qs fs) = Some s_file.
Proof.
  intros H7. unfold scheme, u_slice_to, file_url. cbn [ser scheme_end].
  assert (7 <= nlen s) as L.
  { assert (nlen (nfirstn 7 s) = 7) as E by (rewrite H7; reflexivity). pose proof (nlen_nfirstn_le 7 s).
    unfold nlen, nfirstn in *. rewrite firstn_length in E. lia. }
  rewrite slice_to_o_some by (rewrite nlen_app; lia).
  rewrite nfirstn_app_le by lia. rewrite <- (nfirstn_nfirstn 4 7 s) by lia. rewrite H7. reflexivity.
Qed.

Lemma cinv_file_css k s2 : CInv STFile 7 s_file_css k s2 -> nfirstn 7 s2 = s_file_css.
Proof. intros [H _]. exact H. Qed.

Lemma parse_file_result ovr ctx st l u :
  parse_file dbg hp hd ovr ctx st None l = POk u -> scheme u = Some s_file /\ port u = None.
Proof.
  unfold parse_file. destruct (inp_split_first l) as [fc af]. cbv zeta.
  assert (CInv STFile 7 s_file_css 0 s_file_css) as I0 by (exact (cinv_init STFile s_file_css)).
  assert (CInv STFile 7 s_file_css 0 (s_file_css ++ [47])) as I1 by (apply cinv_app0; [reflexivity|exact I0|reflexivity]).
  destruct (match fc with Some c => is_slash_or_bslash c | None => false end).
  - destruct (inp_split_first af) as [nc an].
    destruct (match nc with Some c => is_slash_or_bslash c | None => false end).
    + intros H. pbi H a Ha. destruct a as [[[ser1 flag] hi] remaining]. apply parse_file_host_app in Ha. destruct Ha as [X ->].
      pbi H he Hhe. apply to_u32_val in Hhe. subst he. pbi H b Hb. destruct b as [[ser2 hh] remaining2].
      assert (nfirstn (nlen (s_file_css ++ X)) ser2 = s_file_css ++ X) as Hpre.
      { destruct flag.
        - apply parse_path_start_cinv in Hb. destruct Hb as (k' & [I' _] & _). exact I'.
        - assert (CInv STFile (nlen (s_file_css ++ X)) (s_file_css ++ X) 0 ((s_file_css ++ X) ++ [47])) as I2
            by (apply cinv_app0; [reflexivity|apply cinv_init|reflexivity]).
          destruct (parse_path_cinv _ _ _ _ _ _ _ _ _ _ _ eq_refl Hb I2) as (k' & [I' _] & _). exact I'. }
      assert (nfirstn 7 ser2 = s_file_css) as H7.
      { rewrite <- (nfirstn_nfirstn 7 (nlen (s_file_css ++ X)) ser2) by (rewrite nlen_app; change (nlen s_file_css) with 7; lia).
        rewrite Hpre. change 7 with (nlen s_file_css). apply nfirstn_app_exact. }
      destruct (negb hh).
      * pbi H c Hc. destruct c as [[ser4 qs] fs]. apply pqf_shape in Hc. destruct Hc as (W & -> & _).
        inversion H; subst. split; [|reflexivity]. apply file_scheme_of.
        rewrite H7. rewrite nfirstn_app_le by (change (nlen s_file_css) with 7; lia). reflexivity.
      * pbi H c Hc. destruct c as [[ser4 qs] fs]. apply pqf_shape in Hc. destruct Hc as (W & -> & _).
        inversion H; subst. split; [|reflexivity]. apply file_scheme_of. exact H7.
    + intros H.
      assert (exists a, parse_path dbg ctx STFile false 7 s_file_css l = POk a
                /\ (let '(ser2, _, remaining) := a in
                    ' (ser3, qs, fs) <~ parse_query_and_fragment ovr ctx st 4 ser2 remaining ;;
                    POk (file_url ser3 7 7 HI_None qs fs)) = POk u) as (a & Ha & H').
      { destruct (negb (starts_with_wdl_segment af)); cbv beta iota zeta in H; pbi H a Ha; exists a; split; assumption. }
      clear H. destruct a as [[ser2 hh] remaining].
      destruct (parse_path_cinv ctx STFile false 7 s_file_css _ _ _ _ _ _ eq_refl Ha I0) as (k' & I' & _).
      pbi H' c Hc. destruct c as [[ser3 qs] fs]. apply pqf_shape in Hc. destruct Hc as (W & -> & _).
      inversion H'; subst. split; [|reflexivity]. apply file_scheme_of. exact (cinv_file_css _ _ I').
  - intros H. pbi H a Ha. destruct a as [[ser2 hh] remaining].
    destruct (parse_path_cinv ctx STFile false 7 s_file_css _ _ _ _ _ _ eq_refl Ha I1) as (k' & I' & _).
    pbi H c Hc. destruct c as [[ser3 qs] fs]. apply pqf_shape in Hc. destruct Hc as (W & -> & _).
    inversion H; subst. split; [|reflexivity]. apply file_scheme_of. exact (cinv_file_css _ _ I').
Qed.

Lemma scheme_type_file s : scheme_type_of s = STFile -> s = s_file.
Proof.
  unfold scheme_type_of.
  destruct (list_eqb s s_http || list_eqb s s_https || list_eqb s s_ws || list_eqb s s_wss || list_eqb s s_ftp); [discriminate|].
  destruct (list_eqb s s_file) eqn:E; [|discriminate]. intros _. now apply list_eqb_spec.
Qed.

Lemma parse_with_scheme_result ovr sch l u :
  parse_with_scheme dbg hp ho hd ovr None sch l = POk u ->
  scheme u = Some sch
  /\ (sch <> s_file -> forall p', path u = Some p' -> (count58 p' <= count58 l)%nat).
Proof.
  unfold parse_with_scheme. intros H. pbi H se Hse. apply to_u32_val in Hse. subst se. cbv zeta in H.
  assert (Hpre : nfirstn (nlen sch) (sch ++ [58]) = sch) by apply nfirstn_app_exact.
  assert (Hle : nlen sch <= nlen (sch ++ [58])) by (rewrite nlen_app; lia).
  destruct (scheme_type_of sch) eqn:Est.
  - apply scheme_type_file in Est. subst sch. split; [|intros Hne; contradiction].
    exact (proj1 (parse_file_result _ _ _ _ _ H)).
  - destruct (inp_count_matching is_slash_or_bslash l) as [sl rem] eqn:E. apply inp_count_matching_count58 in E.
    destruct (after_double_slash_shape _ _ _ _ _ _ _ H eq_refl Hle) as [H1 H2]. rewrite Hpre in H1. split; [exact H1|].
    intros _ p' Hp. specialize (H2 p' Hp). lia.
  - destruct (parse_non_special_shape _ _ _ _ _ _ _ H eq_refl Hle) as [H1 H2]. rewrite Hpre in H1. split; [exact H1|].
    intros _ p' Hp. exact (H2 p' Hp).
Qed.

Lemma parse_with_scheme_shape ovr sch l u :
  parse_with_scheme dbg hp ho hd ovr None sch l = POk u ->
  (forall s, scheme u = Some s -> s = sch)
  /\ (sch <> s_file -> forall p', path u = Some p' -> (count58 p' <= count58 l)%nat).
Proof.
  intros H. destruct (parse_with_scheme_result _ _ _ _ H) as [H1 H2]. split; [|exact H2].
  intros s Hs. congruence.
Qed.

(* Url::parse(text): the scheme of the result is the scheme that was read, and - file URLs aside - its path has
   fewer ':' than the text.  Stated as C16_parse_colons in Properties/C16.v *)
Theorem url_parse_colons p v :
  url_parse dbg hp ho hd p = POk v ->
  forall s, scheme v = Some s -> s <> s_file -> forall p', path v = Some p' -> (count58 p' < count58 p)%nat.
Proof.
  unfold url_parse, parse_url, str_chars. cbv zeta. intros H s Hs Hnf p' Hp.
  pose proof (lossy_count58 p) as H0.
  pose proof (count58_trim is_c0_or_space (utf8_lossy p)) as H1. fold (input_new_trim_c0 (utf8_lossy p)) in H1.
  destruct (parse_scheme CUrlParser (input_new_trim_c0 (utf8_lossy p))) as [[sch remaining]|] eqn:E; [|discriminate].
  apply parse_scheme_count58 in E.
  destruct (parse_with_scheme_shape _ _ _ _ H) as [H2 H3].
  rewrite (H2 s Hs) in Hnf. specialize (H3 Hnf p' Hp). lia.
Qed.

End HostStates.

(* url_parse_colons gives the hypothesis blob_path_shrinks of fuel_never_out (C16_fuel_partial in
   Properties/C16.v), hence url_origin never runs out of fuel: stated as C16_fuel in Properties/C16.v *)
Lemma blob_path_shrinks_holds dbg hp ho hd : blob_path_shrinks dbg hp ho hd.
Proof.
  intros p v p' Hv Hs Hp. eapply url_parse_colons; [exact Hv|exact Hs|discriminate|exact Hp].
Qed.

Theorem fuel_always_enough : forall dbg hp ho hd c u, url_origin dbg hp ho hd c u <> OFuel.
Proof. intros dbg hp ho hd. apply fuel_never_out. apply blob_path_shrinks_holds. Qed.

(* the origin of a blob URL is the origin of the URL its path parses to, what new_opaque returns if the path
   does not parse, a panic if the parser panics: blob_origin without its two `<> OFuel` hypotheses, which
   hold by fuel_always_enough.  Stated as C16_blob_total in Properties/C16.v *)
Lemma blob_origin_total dbg hp ho hd c u p :
  scheme u = Some s_blob -> path u = Some p ->
  match url_parse dbg hp ho hd p with
  | POk v => url_origin dbg hp ho hd c u = url_origin dbg hp ho hd c v
  | PErr _ => url_origin dbg hp ho hd c u = new_opaque c
  | PPanic => url_origin dbg hp ho hd c u = OPanic
  end.
Proof.
  intros Hs Hp. pose proof (blob_origin dbg hp ho hd c u p Hs Hp) as H.
  destruct (url_parse dbg hp ho hd p) as [v|e|]; [|exact H|exact H].
  apply H; apply fuel_always_enough.
Qed.

(* concrete runs, on the stand-in host functions of Proofs/C16_Example.v *)
From RU Require Import Proofs.C16_Example.

Definition t_blob_https_h_443_x : list N :=
  [98; 108; 111; 98; 58; 104; 116; 116; 112; 115; 58; 47; 47; 104; 58; 52; 52; 51; 47; 120].
Definition t_file_c_bar : list N := [102; 105; 108; 101; 58; 47; 67; 124; 47].      (* file:/C|/ *)
Definition t_path_c_colon : list N := [47; 67; 58; 47].                               (* /C:/ *)

(* the premises of url_parse_colons are met: blob:blob:https://h:443/x (4 ':') parses to a blob URL whose
   path blob:https://h:443/x has 3 *)
Lemma colons_example :
  exists v, toy_parse t_blob_blob_https_h_443_x = POk v /\ scheme v = Some s_blob
            /\ path v = Some t_blob_https_h_443_x
            /\ count58 t_blob_https_h_443_x = 3%nat /\ count58 t_blob_blob_https_h_443_x = 4%nat.
Proof. eexists. split; [vm_compute; reflexivity|]. vm_compute. repeat split. Qed.

(* file URLs have to be excluded: the drive-letter quirk writes a ':' that was not in the input -
   file:/C|/ (one ':') has the path /C:/ (one ':') *)
Lemma colons_file_witness :
  exists v, toy_parse t_file_c_bar = POk v /\ scheme v = Some s_file /\ path v = Some t_path_c_colon
            /\ ~ (count58 t_path_c_colon < count58 t_file_c_bar)%nat.
Proof. eexists. split; [vm_compute; reflexivity|]. vm_compute. repeat split. lia. Qed.
