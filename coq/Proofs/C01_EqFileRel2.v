(* Proofs/C01_EqFileRel2.v - second file-BASE arm of the C01 equivalence: a scheme-less reference that starts with two
   '/' '\' (any mix) against a FILE base.  The Standard: no scheme state -> file state (base scheme file, no opaque
   path) -> file slash state -> file host state; parser.rs: parse_file with base_file_url = Some base takes the
   file-host arm.  Neither consults the base any further, so the result is that of "file:" + the reference
   (Proofs/C01_EqFile.v).  Beside C01_statement_all2: these references are in class 1 of known_c01_v2;
   known_c01_v3 takes them out (Proofs/C01_EqFileCover2.v). *)
From Coq Require Import ZifyBool ZifyN.
From RU Require Import Base.Prelude Model.HostT Model.UrlRecord Model.Parser Model.Setters Model.Host
  Model.KnownC01 Spec.Whatwg Spec.WhatwgHostParse Proofs.C02_Parts Proofs.C08_Input Proofs.C09_Host
  Proofs.C01_EqRun Proofs.C01_EqEnc Proofs.C01_EqApi Proofs.C01_EqRef Proofs.C01_EqClasses2 Proofs.C01_EqRel
  Proofs.C01_EqRelArms Proofs.C01_EqSpSpec Proofs.C01_EqSpBase Proofs.C01_EqAsm Proofs.C01_EqShape
  Proofs.C01_EqCover Proofs.C01_EqFileSpec Proofs.C01_EqFile Proofs.C01_EqFileHost Proofs.C01_EqFileAsm
  Proofs.C01_EqFileTwo.


Lemma sfile_u0 shp R : sfile shp empty_url R = sfile shp u_file0 R.
Proof. reflexivity. Qed.

(* specification side: a scheme-less reference "//T" against a file base *)
Theorem spec_file_rel_two shp sb input c1 c2 T :
  spec_clean input = c1 :: c2 :: T -> is_sl c1 = true -> is_sl c2 = true ->
  has_opaque_path sb = false -> list_eqb (su_scheme sb) str_file = true ->
  match sfile shp u_file0 (c1 :: c2 :: T) with
  | Some su => spec_basic_url_parse shp input (Some sb) = BDone su
  | None => exists uf, spec_basic_url_parse shp input (Some sb) = BFailure uf
  end.
Proof.
  intros Ecl E1 E2 Hop Hf. set (inp := spec_clean input) in *.
  pose proof (is_sl_scheme_none c1 (c2 :: T) E1) as Hs. rewrite <- Ecl in Hs.
  assert (inp = [] ++ c1 :: c2 :: T) as Hin by exact Ecl.
  pose proof (runs_file_two shp inp (Some sb) c1 c2 T [] false false false empty_url Hin E1 E2 eq_refl) as RF.
  assert (forall res, Runs shp inp (Some sb) (at_pos StFile [] [] false false false empty_url) res ->
                      spec_basic_url_parse shp input (Some sb) = res) as Hrun.
  { intros res HR. apply spec_parse_of_runs. fold inp. apply runs_no_scheme; [exact Hs|].
    eapply (runs_step_stay shp inp (Some sb) StNoScheme [] inp) with (st' := StFile) (buf' := []);
      [reflexivity | rewrite Ecl; discriminate | | exact HR].
    rewrite (step_unfold shp inp (Some sb) _ [] inp) by reflexivity. cbn zeta.
    unfold st_no_scheme. rewrite Hop, Hf. cbn [andb negb]. reflexivity. }
  rewrite <- sfile_u0. cbn [sfile]. rewrite E1, E2.
  destruct (sfile_host_g shp (fu empty_url) [] T) as [su|]; cbn [out_is] in RF.
  - apply Hrun. exact RF.
  - destruct RF as [uf K]. exists uf. apply Hrun. exact K.
Qed.

(* model side *)
Lemma parse_url_file_rel dbg hp hpo hd b input c t :
  cannot_be_a_base b = Some false -> scheme_type_of (b_scheme b) = STFile ->
  ntnl (input_new_trim_c0 input) = c :: t -> spec_scheme (c :: t) = None -> (c =? 35) = false ->
  parse_url dbg hp hpo hd None (Some b) input
  = parse_file dbg hp hd None CUrlParser STFile (Some b) (input_new_trim_c0 input).
Proof.
  intros Hcb Hst Ht Hs E35. unfold parse_url. set (l := input_new_trim_c0 input) in *.
  pose proof (scheme_state_eq l) as K. rewrite Ht, Hs in K.
  destruct (parse_scheme CUrlParser l) as [[s r]|]; [contradiction|].
  destruct (inp_next_some l c t Ht) as (r & En & _ & _).
  unfold inp_starts_with_char. rewrite En, E35, Hcb, Hst. reflexivity.
Qed.

Definition in_class_file_rel2 (sb : spec_url) (input : list N) : bool :=
  negb (has_opaque_path sb) && list_eqb (su_scheme sb) str_file
  && match spec_clean input with
     | c1 :: c2 :: T => is_sl c1 && is_sl c2 && file_class_ok (c1 :: c2 :: T)
     | _ => false
     end.

Section ClassRel2.
Variable dbg : bool.
Variable hp hpo : list N -> result host.
Variable hd : host -> list N.
Variable shp : bool -> list N -> option spec_host.
Variable shs : spec_host -> list N.

Theorem class_file_rel2 b sb input : usv_list input -> related dbg shs b sb -> in_class_file_rel2 sb input = true ->
  host_agree_file hp hd shp shs (file_host_of (spec_clean input)) ->
  agree_good dbg shs (parse_url dbg hp hpo hd None (Some b) input) (spec_basic_url_parse shp input (Some sb))
  /\ (forall su u, spec_basic_url_parse shp input (Some sb) = BDone su -> parse_url dbg hp hpo hd None (Some b) input = POk u ->
        full_base dbg shs u su).
Proof.
  intros Hu Rl Hc HA. unfold in_class_file_rel2 in Hc.
  apply andb_true_iff in Hc. destruct Hc as [Hc Hok]. apply andb_true_iff in Hc. destruct Hc as [Hop Hf]. apply negb_true_iff in Hop.
  destruct (spec_clean input) as [|c1 [|c2 T]] eqn:Ecl; try discriminate Hok.
  apply andb_true_iff in Hok. destruct Hok as [Hok Hcl]. apply andb_true_iff in Hok. destruct Hok as [E1 E2].
  pose proof (spec_file_rel_two shp sb input c1 c2 T Ecl E1 E2 Hop Hf) as HS.
  rewrite spec_clean_is_ntnl_trim in Ecl. set (l := input_new_trim_c0 input) in *.
  assert (usv_list l) as Hul by exact (usv_trim input Hu).
  rewrite <- Ecl in Hcl, HA, HS.
  pose proof (model_file dbg hp hpo hd shp shs l Hul Hcl HA) as HM.
  assert (parse_url dbg hp hpo hd None (Some b) input = parse_file dbg hp hd None CUrlParser STFile None l) as Epu.
  { assert ((c1 =? 35) = false) as E35 by (unfold is_sl in E1; lia).
    assert (scheme_type_of (b_scheme b) = STFile) as Hst.
    { rewrite (rel_sch _ _ _ _ Rl). apply list_eqb_spec in Hf. rewrite Hf. reflexivity. }
    rewrite (parse_url_file_rel dbg hp hpo hd b input c1 (c2 :: T) (related_not_cbb dbg shs b sb Rl Hop) Hst Ecl
               (is_sl_scheme_none c1 (c2 :: T) E1) E35).
    exact (parse_file_two dbg hp hd _ l c1 c2 T Ecl E1 E2). }
  assert (forall su, spec_basic_url_parse shp input (Some sb) = BDone su -> spec_base_ok su = true /\ base_shape_ok su = true) as Hres.
  { intros su HS'. destruct (sfile shp u_file0 (ntnl l)) as [su'|] eqn:E.
    - rewrite HS in HS'. inversion HS'; subst su'. exact (sfile_result_ok shp _ su E).
    - destruct HS as [uf K]. rewrite K in HS'. discriminate HS'. }
  assert (agree_good dbg shs (parse_url dbg hp hpo hd None (Some b) input) (spec_basic_url_parse shp input (Some sb))) as G.
  { apply agree_good_intro; [|intros su HS'; exact (proj1 (Hres su HS'))].
    rewrite Epu. destruct (sfile shp u_file0 (ntnl l)) as [su|].
    - rewrite HS. cbn [agree_rel_strict]. destruct HM as (u & HO & Rl' & Hle).
      pose proof (related_href dbg shs u su Rl') as Eh. rewrite <- Eh.
      destruct HO as [[E B]|E]; [left; split; assumption | right; exists u; split; assumption].
    - destruct HS as [uf ->]. cbn [agree_rel_strict]. exact HM. }
  split; [exact G|]. intros su u HS' HM'. rewrite HS' in G.
  split; [exact (agree_good_chain dbg shs _ su u G HM') | exact (proj2 (Hres su HS'))].
Qed.

End ClassRel2.

Theorem class_file_rel2_model dbg idna : IdnaOK idna -> forall input b sb,
  usv_list input -> related dbg spec_host_serializer b sb -> in_class_file_rel2 sb input = true ->
  agree_good dbg spec_host_serializer
    (parse_url dbg (host_parse idna) host_parse_opaque host_display None (Some b) input)
    (spec_basic_url_parse (spec_host_parser idna) input (Some sb))
  /\ (forall su u, spec_basic_url_parse (spec_host_parser idna) input (Some sb) = BDone su ->
        parse_url dbg (host_parse idna) host_parse_opaque host_display None (Some b) input = POk u ->
        full_base dbg spec_host_serializer u su).
Proof.
  intros HI input b sb Hu Rl Hc. apply class_file_rel2; [exact Hu | exact Rl | exact Hc|].
  apply host_agree_file_real; [exact (idna_out idna HI)|].
  pose proof (usv_spec_clean input Hu) as Hcl. unfold file_host_of.
  destruct (spec_clean input) as [|c1 [|c2 T]]; try constructor.
  destruct (is_sl c1 && is_sl c2); [|constructor].
  apply (usv_of_in _ T); [exact (as_part_in T) | apply usv_cons in Hcl; destruct Hcl as [_ Hcl]; apply usv_cons in Hcl; tauto].
Qed.

(* non-vacuity: against the parse result of file://h/tmp/x the references //h2.x/a/../b?q and \\/y are in the class
   (in class 1 of known_c01_v2, outside known_c01_v3); both sides give file://h2.x/b?q and file:///y *)
Example class_file_rel2_nonvacuous :
  let idna := id_idna in
  let P base i := parse_url true (host_parse idna) host_parse_opaque host_display None base i in
  let S sbase i := spec_basic_url_parse (spec_host_parser idna) i sbase in
  let i1 := [47;47;104;50;46;120;47;97;47;46;46;47;98;63;113] in
  let i2 := [92;92;47;121] in
  match P None file_base_text, S None file_base_text with
  | POk b, BDone sb =>
      in_class_file_rel2 sb i1 = true /\ in_class_file_rel2 sb i2 = true
      /\ known_c01_v2 (Some b) i1 = 1 /\ known_c01_v2 (Some b) i2 = 1
      /\ match P (Some b) i1, S (Some sb) i1 with
         | POk u, BDone su => q_href u = [102;105;108;101;58;47;47;104;50;46;120;47;98;63;113]
                              /\ api_of_model true u = Some (spec_api_list spec_host_serializer su)
         | _, _ => False end
      /\ match P (Some b) i2, S (Some sb) i2 with
         | POk u, BDone su => q_href u = [102;105;108;101;58;47;47;47;121]
                              /\ api_of_model true u = Some (spec_api_list spec_host_serializer su)
         | _, _ => False end
  | _, _ => False
  end.
Proof. vm_compute. repeat split. Qed.
