(* Proofs/C09_V6spec.v - write_ipv6 equals the Standard's IPv6 serializer on every address. *)
From RU Require Import Base.Prelude Base.Utf8 Model.HostT Model.Host Spec.WhatwgHost Proofs.C09_V6 Proofs.C09_V6rt
  Proofs.C09_Wf.

(* the Standard's digit loop, run for at least as many rounds as v has digits, writes what hex4 writes *)
Lemma shortest_hex_hex4 v : v < 65536 -> Spec.shortest_hex v = hex4 v.
Proof.
  intros Hv. unfold Spec.shortest_hex. rewrite <- (app_nil_r (hex4 v)).
  generalize (@nil N). generalize (proj2 (hex4_len v)). generalize 4%nat. revert v Hv.
  apply (hex4_ind (fun v h => forall f, (length h <= f)%nat -> forall acc, Spec.hex_digits f v acc = h ++ acc)).
  - intros d Hd [|f] Hf acc; [cbn in Hf; lia|]. cbn [Spec.hex_digits]. rewrite N.div_small, N.mod_small by exact Hd. reflexivity.
  - intros w h Hw IH [|f] Hf acc; [rewrite app_length in Hf; cbn in Hf; lia|]. cbn [Spec.hex_digits].
    replace (w / 16 =? 0) with false by lia. rewrite <- app_assoc. apply IH. rewrite app_length in Hf. cbn in Hf. lia.
Qed.

Lemma find_compress_nz l : forall i li ls fi fs,
  Spec.find_compress (map nz l) i li ls fi fs = Spec.find_compress l i li ls fi fs.
Proof.
  induction l as [|p r IH]; intros i li ls fi fs; cbn [map Spec.find_compress]; [reflexivity|].
  replace (nz p =? 0) with (p =? 0) by (unfold nz; destruct (p =? 0) eqn:E; lia).
  destruct (negb (p =? 0)); [destruct (ls <? fs)%nat|]; apply IH.
Qed.

Local Arguments hex4 : simpl never.
Local Arguments Spec.shortest_hex : simpl never.

Ltac close_consts :=
  repeat match goal with
  | |- context [longest_zero_sequence ?l] =>
      let v := eval vm_compute in (longest_zero_sequence l) in change (longest_zero_sequence l) with v
  | |- context [Spec.find_compress ?l 0 None 1 None 0] =>
      let v := eval vm_compute in (Spec.find_compress l 0 None 1 None 0) in
      change (Spec.find_compress l 0 None 1 None 0) with v
  end.

Theorem write_ipv6_spec a : wf8 a -> write_ipv6 a = Spec.ipv6_serialize a.
Proof.
  intros [Hlen Hall]. destruct (length8 a Hlen) as (a0 & a1 & a2 & a3 & a4 & a5 & a6 & a7 & ->).
  repeat match goal with H : Forall _ (_ :: _) |- _ => inversion H; clear H; subst end.
  unfold Spec.ipv6_serialize, Spec.compress_index, write_ipv6, write_ipv6_o.
  rewrite <- find_compress_nz, <- lzs_nz. cbn [map]. unfold nz.
  destruct (a0 =? 0) eqn:E0; destruct (a1 =? 0) eqn:E1; destruct (a2 =? 0) eqn:E2; destruct (a3 =? 0) eqn:E3;
  destruct (a4 =? 0) eqn:E4; destruct (a5 =? 0) eqn:E5; destruct (a6 =? 0) eqn:E6; destruct (a7 =? 0) eqn:E7;
  close_consts;
  repeat match goal with E : (?x =? 0) = true |- _ => apply N.eqb_eq in E; subst x end;
  to_nat_consts;
  repeat (progress (cbn [Spec.serialize_pieces andb Nat.eqb app];
                    rewrite ?E0, ?E1, ?E2, ?E3, ?E4, ?E5, ?E6, ?E7; change (0 =? 0) with true));
  rewrite ?shortest_hex_hex4 by (assumption || lia);
  rewrite ?app_nil_r; reflexivity.
Qed.

(* the model parser inverts the Standard's serializer *)
Corollary parse_spec_serialize a : wf8 a -> parse_ipv6addr (Spec.ipv6_serialize a) = XOk a.
Proof. intros H. rewrite <- write_ipv6_spec by exact H. destruct H. apply parse_write_ipv6; assumption. Qed.

(* ------------------------------------------------------------------ parser against the Standard's parser *)

Definition liftx {A} (o : option A) : xr A :=
  match o with Some a => XOk a | None => XErr InvalidIpv6Address end.

(* the full statement (proved in Proofs/C09_V6sim.v) *)
Definition ipv6_parse_spec_statement : Prop :=
  forall s, usv_list s -> parse_ipv6addr (utf8_encode s) = liftx (Spec.ipv6_parse s).

(* the strings of length <= n over an alphabet, for the bounded instance stated in Properties/C09.v *)
Fixpoint all_strings (alpha : list N) (n : nat) : list (list N) :=
  match n with
  | O => [[]]
  | S k => [] :: flat_map (fun s => map (fun c => c :: s) alpha) (all_strings alpha k)
  end.
