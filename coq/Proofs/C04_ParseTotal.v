(* Proofs/C04_ParseTotal.v - Parser::parse_url reaches none of its panic sites whenever the file scheme
   is not involved: every input (no scalar-value hypothesis), with or without a base; the base has to be
   well-formed (wf_b) and, when its scheme is special, must not be cannot-be-a-base (true of every special
   URL the parser produces; wf_b alone does not say it - see parse_statement_false below).
   Built on the path-state totality of C04_PathFile.v and the authority states of C04_Parse.v. *)
From RU Require Import Base.Prelude Base.Utf8 Model.AsciiSet Gen.Tables Model.PercentEncoding
  Model.HostT Model.UrlRecord Model.Parser Model.WF
  Proofs.ListN Proofs.C06_List Proofs.C02_Parts Proofs.C03_WF Proofs.C06_WFI Proofs.C06_Tail Proofs.C06_Steps
  Proofs.C04_Parse Proofs.C04_PathTotal Proofs.C04_PathFile Proofs.C04_PathCtx.

(* ---------- small facts ---------- *)
Lemma match47 {A} (o : option N) (x y : A) :
  (match o with Some 47 => x | _ => y end) = if (match o with Some d => d =? 47 | None => false end) then x else y.
Proof.
  destruct o as [[|p]|]; try reflexivity.
  do 6 (destruct p as [p|p|]; try reflexivity).
Qed.

Lemma st_nf_special : st_is_file STSpecialNotFile = false. Proof. reflexivity. Qed.
Lemma st_nf_notspecial : st_is_file STNotSpecial = false. Proof. reflexivity. Qed.

(* ---------- the start of the path state ---------- *)
Section PathStart.
Variables (dbg : bool) (st : scheme_type).
Hypothesis Hnf : st_is_file st = false.

Lemma loop_drop_tnl ps l ser ss hh :
  parse_path_loop dbg CUrlParser st ps l ser ss [] hh
  = parse_path_loop dbg CUrlParser st ps (drop_while is_tnl l) ser ss [] hh.
Proof. apply loop_ctx_drop_tnl. Qed.

(* the empty segment in front of the first '/' (or of the end) *)
Lemma finish_empty_seg ps (ser : list N) (ews : bool) hh :
  finish_segment dbg st ps (if ews then ser ++ [47] else ser) (nlen ser) ews hh
  = POk (if ews then ser ++ [47] else ser, hh).
Proof using Hnf. apply finish_empty_any. Qed.

Theorem parse_path_ok ps k hh ser l : k <= ps + 1 -> seg_inv ps k ser (nlen ser) ->
  exists s' rem, parse_path dbg CUrlParser st hh ps ser l = POk (s', hh, rem) /\ agree_pre k ser s' /\ rem_ok rem.
Proof. intros Hk I. unfold parse_path. apply (loop_nofile dbg st ps k Hk); assumption. Qed.

End PathStart.

(* ---------- with_query_and_fragment: its assert!s ---------- *)
Lemma pqf_tail_ok ovr st se ue hs he hi port ps1 ser1 rem : rem_ok rem ->
  (' (ser2, qs, fs) <~ parse_query_and_fragment ovr CUrlParser st se ser1 rem ;;
   POk (mkUrl ser2 se ue hs he hi port ps1 qs fs)) <> PPanic.
Proof.
  intros Hr. pose proof (pqf_no_panic ovr CUrlParser st se ser1 rem Hr) as Hq.
  destruct (parse_query_and_fragment ovr CUrlParser st se ser1 rem) as [[[s2 qs] fs]| |]; cbn [pbind];
    [discriminate | discriminate | congruence].
Qed.

Lemma css_dot_false l : nfirstn 3 l = [58; 47; 46] -> starts_with s_css l = false.
Proof. intros H. rewrite starts_with_nfirstn. change (nlen s_css) with 3. rewrite H. reflexivity. Qed.

Theorem wqf_ok ovr st se ue hs he hi port ps ser rem : rem_ok rem ->
  (ps = se + 3 -> nfirstn 3 (nskipn se ser) = [58; 47; 46] -> nnth ser ps = Some 47) ->
  with_query_and_fragment ovr CUrlParser st se ue hs he hi port ps ser rem <> PPanic.
Proof.
  intros Hr Hc. unfold with_query_and_fragment.
  destruct (ps =? se + 1) eqn:E1.
  - apply N.eqb_eq in E1. destruct (starts_with s_ss (nskipn ps ser)) eqn:Ess.
    + assert (starts_with s_css (nskipn se (nfirstn ps ser ++ [47; 46] ++ nskipn ps ser)) = false) as Ea.
      { assert (ps <= nlen ser) as Hl.
        { destruct (N.le_gt_cases ps (nlen ser)) as [G|G]; [exact G|].
          rewrite nskipn_all in Ess by lia. discriminate. }
        rewrite nskipn_app_le by (rewrite nlen_nfirstn by exact Hl; lia).
        subst ps. replace (se + 1) with (se + 1) at 1 by reflexivity. rewrite nskipn_nfirstn_comm.
        destruct (nskipn se ser) as [|c t]; [reflexivity|]. change (nfirstn 1 (c :: t)) with [c].
        cbn [app s_css starts_with]. change (47 =? 46) with false. rewrite !andb_false_r. reflexivity. }
      rewrite Ea. cbn [negb passert pbind]. apply pqf_tail_ok. exact Hr.
    + assert (starts_with s_css (nskipn se ser) = false) as Ea.
      { subst ps. replace (se + 1) with (1 + se) in Ess by lia. rewrite <- nskipn_nskipn in Ess.
        destruct (nskipn se ser) as [|c t]; [reflexivity|].
        change (nskipn 1 (c :: t)) with t in Ess. cbn [s_css starts_with]. unfold s_ss in Ess. cbn [starts_with] in Ess.
        rewrite Ess. apply andb_false_r. }
      rewrite Ea. cbn [negb passert pbind]. apply pqf_tail_ok. exact Hr.
  - destruct ((ps =? se + 3) && list_eqb (nfirstn (ps - se) (nskipn se ser)) [58; 47; 46]) eqn:E2.
    + apply andb_true_iff in E2. destruct E2 as [E2 E3]. apply N.eqb_eq in E2. apply list_eqb_spec in E3.
      replace (ps - se) with 3 in E3 by lia. pose proof (Hc E2 E3) as H47. rewrite H47.
      rewrite N.eqb_refl. cbn [passert pbind].
      rewrite match47. destruct (match nnth ser (ps + 1) with Some d => d =? 47 | None => false end) eqn:Ed.
      * rewrite (css_dot_false _ E3). cbn [negb passert pbind]. apply pqf_tail_ok. exact Hr.
      * assert (starts_with s_css (nskipn se (nfirstn se ser ++ [58] ++ nskipn ps ser)) = false) as Ea.
        { assert (se <= nlen ser) as Hl.
          { destruct (N.le_gt_cases se (nlen ser)) as [G|G]; [exact G|].
            rewrite nskipn_all in E3 by lia. discriminate. }
          rewrite nskipn_app_ge by (rewrite nlen_nfirstn by exact Hl; lia).
          rewrite nlen_nfirstn by exact Hl. rewrite N.sub_diag, nskipn_0.
          rewrite (nskipn_cons_of_nnth _ _ _ H47).
          cbn [app s_css starts_with]. rewrite !N.eqb_refl. cbn [andb].
          pose proof (nnth_nskipn ser (ps + 1) 0) as Hn. rewrite N.add_0_r in Hn. rewrite head_nnth in Hn.
          destruct (nskipn (ps + 1) ser) as [|d t]; [reflexivity|]. rewrite <- Hn in Ed.
          rewrite N.eqb_sym, Ed. reflexivity. }
        rewrite Ea. cbn [negb passert pbind]. apply pqf_tail_ok. exact Hr.
    + cbn [pbind]. apply pqf_tail_ok. exact Hr.
Qed.

(* ---------- the authority states only append ---------- *)
Lemma userinfo_loop_app l : forall n ser uend hpw hun ser1 uend1 hpw1 hun1,
  userinfo_loop l n ser uend hpw hun = POk (ser1, uend1, hpw1, hun1) -> exists x, ser1 = ser ++ x.
Proof.
  assert (forall ser : list N, exists x, ser = ser ++ x) as Hrefl by (intros s; exists []; rewrite app_nil_r; reflexivity).
  induction l as [|c r IH]; intros n ser uend hpw hun ser1 uend1 hpw1 hun1 H.
  - cbn [userinfo_loop] in H. destruct (n =? 0); [|discriminate]. inversion H; subst. apply Hrefl.
  - cbn [userinfo_loop] in H. destruct (n =? 0); [inversion H; subst; apply Hrefl|].
    destruct (is_tnl c); [eapply IH; exact H|].
    destruct ((c =? 58) && match uend with None => true | Some _ => false end).
    + destruct (to_u32 (nlen ser)) as [ue| |]; cbn [pbind] in H; try discriminate.
      destruct (0 <? n - 1).
      * apply IH in H. destruct H as [x ->]. rewrite <- app_assoc. eexists. reflexivity.
      * eapply IH; exact H.
    + apply IH in H. destruct H as [x ->]. unfold push_encoded. rewrite <- app_assoc. eexists. reflexivity.
Qed.

Lemma parse_userinfo_app st ser l ser1 ue rem :
  parse_userinfo st ser l = POk (ser1, ue, rem) -> exists x, ser1 = ser ++ x.
Proof.
  assert (exists x, ser = ser ++ x) as Hrefl by (exists []; rewrite app_nil_r; reflexivity).
  unfold parse_userinfo. destruct (scan_last_at (st_is_special st) l 0 None) as [[n rm]|].
  - destruct n as [|p].
    + destruct (inp_next rm) as [[c r]|]; [|discriminate].
      destruct ((c =? 47) || (c =? 63) || (c =? 35) || st_is_special st && (c =? 92)); [discriminate|].
      destruct (to_u32 (nlen ser)); cbn [pbind]; try discriminate. intros H. inversion H; subst. exact Hrefl.
    + destruct (userinfo_loop l (N.pos p) ser None false false) as [[[[s1 uend] hpw] hun]| |] eqn:E; cbn [pbind]; try discriminate.
      apply userinfo_loop_app in E. destruct E as [x ->].
      match goal with |- pbind ?e _ = _ -> _ => destruct e; cbn [pbind]; try discriminate end.
      intros H. inversion H; subst. destruct (hun || hpw); [rewrite <- app_assoc|]; eexists; reflexivity.
  - destruct (to_u32 (nlen ser)); cbn [pbind]; try discriminate. intros H. inversion H; subst. exact Hrefl.
Qed.

Lemma parse_host_and_port_app hp hpo hd ctx st se ser l ser2 he hi port rem :
  parse_host_and_port hp hpo hd ctx st se ser l = POk (ser2, he, hi, port, rem) -> exists x, ser2 = ser ++ x.
Proof.
  unfold parse_host_and_port.
  destruct (parse_host hp hpo st l) as [[host remaining]| |]; cbn [pbind]; try discriminate.
  destruct (to_u32 (nlen (ser ++ hd host))); cbn [pbind]; try discriminate.
  match goal with |- pbind ?e _ = _ -> _ => destruct e; cbn [pbind]; try discriminate end.
  destruct (inp_split_prefix_char 58 remaining) as [rm|].
  - destruct (parse_port ctx (default_port (nfirstn se (ser ++ hd host))) rm) as [[pt rm2]| |]; cbn [pbind]; try discriminate.
    intros H. inversion H; subst. destruct port; [rewrite <- app_assoc|]; eexists; reflexivity.
  - intros H. inversion H; subst. eexists; reflexivity.
Qed.

(* ---------- after "//" ---------- *)
Section Auth.
Variable dbg : bool.
Variable hp hpo : list N -> result host.
Variable hd : host -> list N.
Variable ovr : option (list N -> list N).

Theorem after_double_slash_ok st se ser l : st_is_file st = false -> nlen ser = se + 1 ->
  after_double_slash dbg hp hpo hd ovr CUrlParser st se ser l <> PPanic.
Proof.
  intros Hnf Hl. unfold after_double_slash.
  pose proof (parse_userinfo_no_panic st (ser ++ [47; 47]) l) as Hu.
  destruct (parse_userinfo st (ser ++ [47; 47]) l) as [[[ser1 ue] rm]| |] eqn:Eu; cbn [pbind];
    [|discriminate|congruence].
  apply parse_userinfo_app in Eu. destruct Eu as [x ->].
  du32 (nlen ((ser ++ [47; 47]) ++ x)) hs Ehs.
  pose proof (parse_host_and_port_no_panic hp hpo hd CUrlParser st se ((ser ++ [47; 47]) ++ x) rm) as Hh.
  destruct (parse_host_and_port hp hpo hd CUrlParser st se ((ser ++ [47; 47]) ++ x) rm)
    as [[[[[ser2 he] hi] port] rm2]| |] eqn:Eh; cbn [pbind]; [|discriminate|congruence].
  apply parse_host_and_port_app in Eh. destruct Eh as [y ->].
  match goal with |- (if ?c then _ else _) <> _ => destruct c; [discriminate|] end.
  du32 (nlen (((ser ++ [47; 47]) ++ x) ++ y)) ps Eps. apply to_u32_inv in Eps. destruct Eps as [-> _].
  destruct (parse_path_start_res dbg CUrlParser st eq_refl true (((ser ++ [47; 47]) ++ x) ++ y) rm2) as (s3 & hh' & rem & E & Ha & Hr).
  unfold file_path_fixup in E. rewrite Hnf in E. rewrite E. cbn [pbind]. apply wqf_ok; [exact Hr|].
  intros Hps H3. exfalso.
  (* the three bytes at scheme_end are ':' '/' '/' *)
  unfold agree_pre in Ha. rewrite <- (nfirstn_nskipn (nlen (((ser ++ [47; 47]) ++ x) ++ y)) s3) in H3.
  rewrite Ha in H3. rewrite (nfirstn_all (nlen (((ser ++ [47; 47]) ++ x) ++ y)) (((ser ++ [47; 47]) ++ x) ++ y)) in H3 by lia.
  rewrite <- !app_assoc in H3. rewrite nskipn_app_le in H3 by lia.
  assert (nlen (nskipn se ser) = 1) as L1 by (rewrite nlen_nskipn; lia).
  destruct (nskipn se ser) as [|c [|d t]]; [discriminate L1 | | rewrite !nlen_cons in L1; lia].
  cbn in H3. discriminate H3.
Qed.

Lemma cbb_path_rem_ok l : forall ser, rem_ok (snd (parse_cannot_be_a_base_path CUrlParser ser l)).
Proof.
  induction l as [|c r IH]; intros ser; cbn [parse_cannot_be_a_base_path]; [exact rem_ok_nil|].
  destruct (is_tnl c) eqn:Et; [apply IH|]. cbn [ctx_eqb]. rewrite andb_true_r. fold (is_qh c).
  destruct (is_qh c) eqn:Eq; [|apply IH]. cbn [snd]. apply rem_ok_cons; assumption.
Qed.

Theorem parse_non_special_ok se ser l : nlen ser = se + 1 ->
  parse_non_special dbg hp hpo hd ovr CUrlParser STNotSpecial se ser l <> PPanic.
Proof.
  intros Hl. unfold parse_non_special. destruct (inp_split_prefix_str s_ss l) as [rm|].
  - apply after_double_slash_ok; [reflexivity | exact Hl].
  - du32 (nlen ser) ps Eps. apply to_u32_inv in Eps. destruct Eps as [-> _].
    destruct (inp_split_prefix_char 47 l) as [rm|].
    + destruct (parse_path_ok dbg STNotSpecial st_nf_notspecial (nlen ser) (nlen ser + 1) false (ser ++ [47]) rm ltac:(lia)
                  (seg_inv_snoc (nlen ser) (nlen ser + 1) ser ltac:(lia) ltac:(lia))) as (s' & rem & E & _ & Hr).
      rewrite E. cbn [pbind]. apply wqf_ok; [exact Hr | lia].
    + cbn [pbind]. pose proof (cbb_path_rem_ok l ser) as Hr.
      destruct (parse_cannot_be_a_base_path CUrlParser ser l) as [s1 rem]. cbn [snd] in Hr.
      apply wqf_ok; [exact Hr | lia].
Qed.

(* ---------- facts about a well-formed base ---------- *)
Lemma bq_shape b : wf_b b = true ->
  b_before_query b = nfirstn (path_end b) (ser b) /\ path_start b <= path_end b /\ path_end b <= nlen (ser b).
Proof.
  intros W. pose proof (wf_qf_facts b W) as QF. pose proof (qf_q QF) as Q1. pose proof (qf_f QF) as Q2.
  pose proof (path_start_le_len b W) as L. unfold b_before_query, path_end.
  destruct (query_start b) as [q|]; [split; [reflexivity | lia]|].
  destruct (fragment_start b) as [f|]; [split; [reflexivity | lia]|].
  split; [rewrite nfirstn_all by lia; reflexivity | lia].
Qed.

(* a base that is not cannot-be-a-base has a path that is empty or starts with '/' *)
Lemma base_path_slash b : wf_b b = true -> nnth (ser b) (scheme_end b + 1) = Some 47 ->
  path_start b < path_end b -> nnth (ser b) (path_start b) = Some 47.
Proof.
  intros W Hs Hlt. destruct (bq_shape b W) as (_ & _ & Hpe). apply wf_b_iff in W. destruct W as (_ & HA & HQ).
  destruct HQ as (_ & _ & _ & Hq & _).
  destruct (has_authority_b b).
  - destruct HA as [(_ & _ & _ & _ & A5 & _) PS].
    assert (forall c, no_qh c = false -> byte_eqb (ser b) (path_start b) c = true -> False) as Hno.
    { intros c Hc Hb. apply byte_eqb_true_iff in Hb. rewrite (nskipn_cons_of_nnth _ _ _ Hb) in Hq.
      replace (path_end b - path_start b) with (1 + (path_end b - path_start b - 1)) in Hq by lia.
      unfold nfirstn in Hq. rewrite N2Nat.inj_add in Hq. change (N.to_nat 1) with 1%nat in Hq.
      cbn [Nat.add firstn forallb] in Hq. rewrite Hc in Hq. discriminate. }
    destruct PS as [PS|[PS|[PS|PS]]].
    + exfalso. lia.
    + apply byte_eqb_true_iff. exact PS.
    + exfalso. apply (Hno 63); [reflexivity | exact PS].
    + exfalso. apply (Hno 35); [reflexivity | exact PS].
  - destruct HA as (_ & _ & _ & _ & _ & _ & [N1|(N1 & _ & _ & N4)]).
    + rewrite N1. exact Hs.
    + unfold s_ss in N4. pose proof (nnth_nskipn (ser b) (path_start b) 0) as Hn. rewrite N.add_0_r in Hn.
      rewrite head_nnth in Hn. destruct (nskipn (path_start b) (ser b)) as [|c t]; [discriminate|].
      cbn [starts_with] in N4. apply andb_true_iff in N4. destruct N4 as [N4 _]. apply N.eqb_eq in N4. subst c.
      symmetry. exact Hn.
Qed.
End Auth.

(* ---------- relative references against a well-formed base ---------- *)
Section Rel.
Variable dbg : bool.
Variable hp hpo : list N -> result host.
Variable hd : host -> list N.
Variable ovr : option (list N -> list N).

Lemma fragment_only_ok b l : fragment_only b l <> PPanic.
Proof. unfold fragment_only. du32 (nlen (b_before_fragment b)) fs E. discriminate. Qed.

(* the path-relative arm: what is left of the base path after pop_path, with the '/' the parser adds *)
Lemma pop_base_ok st b (l : list N) : wf_b b = true -> st_is_file st = false ->
  nnth (ser b) (scheme_end b + 1) = Some 47 -> inp_is_empty l = false ->
  exists s1, pop_path st (path_start b) (b_before_query b) = POk s1
    /\ let s2 := if (nlen s1 =? path_start b) && (st_is_special (scheme_type_of (b_scheme b)) || negb (inp_is_empty l))
                 then s1 ++ [47] else s1 in
       seg_inv (path_start b) (path_start b + 1) s2 (nlen s2) /\ nnth s2 (path_start b) = Some 47.
Proof.
  intros W Hnf Hs He. destruct (bq_shape b W) as (Ebq & P1 & P2).
  assert (nlen (b_before_query b) = path_end b) as Lbq by (rewrite Ebq; apply nlen_nfirstn; exact P2).
  destruct (path_start b <? path_end b) eqn:Elt.
  - assert (nnth (b_before_query b) (path_start b) = Some 47) as Hb.
    { rewrite Ebq. rewrite nnth_nfirstn by lia. apply base_path_slash; [exact W | exact Hs | lia]. }
    destruct (pop_path_ok st (path_start b) (b_before_query b) (path_start b) Hnf ltac:(lia) Hb) as (n & En & N1 & N2 & N3).
    exists (nfirstn n (b_before_query b)). split; [exact En|].
    rewrite He. cbn [negb]. rewrite orb_true_r, andb_true_r.
    rewrite nlen_nfirstn by exact N2. replace (n =? path_start b) with false by lia.
    destruct (seg_inv_trunc (path_start b) (path_start b + 1) (b_before_query b) n ltac:(lia) ltac:(lia) ltac:(lia) N2 N3) as [I _].
    split; [exact I|]. rewrite nnth_nfirstn by lia. exact Hb.
  - exists (b_before_query b). split.
    + unfold pop_path. rewrite Lbq, Elt. reflexivity.
    + rewrite He. cbn [negb]. rewrite orb_true_r, andb_true_r.
      rewrite Lbq. replace (path_end b =? path_start b) with true by lia.
      split; [apply seg_inv_snoc; lia|]. rewrite nnth_app_ge by lia. rewrite Lbq.
      replace (path_start b - path_end b) with 0 by lia. reflexivity.
Qed.

Theorem parse_relative_ok st b l : wf_b b = true -> st_is_file st = false ->
  nnth (ser b) (scheme_end b + 1) = Some 47 ->
  parse_relative dbg hp hpo hd ovr CUrlParser st b l <> PPanic.
Proof.
  intros W Hnf Hs.
  destruct (wf_scheme_facts b W) as (S1 & S2 & S3).
  pose proof (path_start_le_len b W) as PL.
  assert (nlen (nfirstn (path_start b) (ser b)) = path_start b) as La by (apply nlen_nfirstn; exact PL).
  destruct (inp_next l) as [[c r]|] eqn:En.
  2:{ unfold parse_relative, inp_split_first. rewrite En. discriminate. }
  assert (inp_is_empty l = false) as He by (unfold inp_is_empty; rewrite En; reflexivity).
  destruct (pop_base_ok st b l W Hnf Hs He) as (s1 & Epop & I2 & H2). cbv zeta in I2, H2.
  unfold parse_relative, inp_split_first. rewrite En.
  destruct (c =? 63) eqn:E63.
  { pose proof (pqf_no_panic ovr CUrlParser st (scheme_end b) (b_before_query b) l) as Hq.
    rewrite En in Hq. specialize (Hq ltac:(unfold is_qh; rewrite E63; reflexivity)).
    destruct (parse_query_and_fragment ovr CUrlParser st (scheme_end b) (b_before_query b) l) as [[[s qs] fs]| |];
      cbn [pbind]; [discriminate | discriminate | congruence]. }
  destruct (c =? 35); [apply fragment_only_ok|].
  destruct ((c =? 47) || (c =? 92) && st_is_special st).
  - destruct (inp_count_matching (fun d => (d =? 47) || (d =? 92) && st_is_special st) l) as [slashes remaining].
    destruct (2 <=? slashes).
    + unfold dassert. apply byte_eqb_nnth in S2. rewrite S2. rewrite N.eqb_refl. cbn [negb]. rewrite andb_false_r. cbn [pbind].
      assert (nlen (nfirstn (scheme_end b + 1) (ser b)) = scheme_end b + 1) as L1 by (apply nlen_nfirstn; lia).
      destruct (negb (st_is_special st)); [destruct (inp_split_prefix_str s_ss l)|]; apply after_double_slash_ok; assumption.
    + destruct (parse_path_ok dbg st Hnf (path_start b) (path_start b + 1) true (nfirstn (path_start b) (ser b) ++ [47]) r
                  ltac:(lia) (seg_inv_snoc (path_start b) (path_start b + 1) (nfirstn (path_start b) (ser b)) ltac:(lia) ltac:(lia)))
        as (s' & rem & E & Ha & Hr).
      rewrite E. cbn [pbind]. apply wqf_ok; [exact Hr|]. intros _ _.
      rewrite (pre_nnth (path_start b + 1) _ _ (path_start b) Ha ltac:(lia)).
      rewrite nnth_app_ge by lia. rewrite La, N.sub_diag. reflexivity.
  - rewrite Epop. cbn [pbind].
    set (s2 := if (nlen s1 =? path_start b) && (st_is_special (scheme_type_of (b_scheme b)) || negb (inp_is_empty l))
               then s1 ++ [47] else s1) in *.
    assert (exists X, (match c with
                       | 47 => parse_path dbg CUrlParser st true (path_start b) s2 r
                       | _ => parse_path dbg CUrlParser st true (path_start b) s2 l
                       end) = parse_path dbg CUrlParser st true (path_start b) s2 X) as [X EX].
    { destruct (N.eq_dec c 47) as [->|Hc]; [exists r; reflexivity|]. exists l.
      destruct c as [|p]; [reflexivity|]. do 6 (destruct p as [p|p|]; try reflexivity). congruence. }
    cbv beta iota. rewrite EX.
    destruct (parse_path_ok dbg st Hnf (path_start b) (path_start b + 1) true s2 X ltac:(lia) I2) as (s' & rem & E & Ha & Hr).
    rewrite E. cbn [pbind]. apply wqf_ok; [exact Hr|]. intros _ _.
    rewrite (pre_nnth (path_start b + 1) _ _ (path_start b) Ha ltac:(lia)). exact H2.
Qed.

(* ---------- top level ---------- *)
(* the base is well-formed and, if its scheme is special, has a path that starts with '/' *)
Definition base_ok (b : url) : bool :=
  wf_b b && (negb (st_is_special (scheme_type_of (b_scheme b))) || byte_eqb (ser b) (scheme_end b + 1) 47).

(* the class of finding F-C04-7 (same as Properties/C04.known_c04_7) *)
Definition file_involved (base : option url) (input : list N) : bool :=
  match parse_scheme CUrlParser (input_new_trim_c0 input) with
  | Some (sch, _) => st_is_file (scheme_type_of sch)
  | None => match base with Some b => list_eqb (b_scheme b) s_file | None => false end
  end.

Theorem parse_with_scheme_ok base sch l :
  match base with Some b => base_ok b = true | None => True end ->
  st_is_file (scheme_type_of sch) = false ->
  parse_with_scheme dbg hp hpo hd ovr base sch l <> PPanic.
Proof.
  intros Hb Hnf. unfold parse_with_scheme. du32 (nlen sch) se E. apply to_u32_inv in E. destruct E as [-> _].
  assert (nlen (sch ++ [58]) = nlen sch + 1) as L by (rewrite nlen_app; reflexivity).
  destruct (scheme_type_of sch) eqn:Est; [discriminate Hnf | |].
  - destruct (inp_count_matching is_slash_or_bslash l) as [slashes remaining].
    destruct base as [b|]; [|apply after_double_slash_ok; [reflexivity | exact L]].
    destruct ((slashes <? 2) && list_eqb (b_scheme b) sch) eqn:Ec; [|apply after_double_slash_ok; [reflexivity | exact L]].
    apply andb_true_iff in Ec. destruct Ec as [_ Ec]. apply list_eqb_spec in Ec.
    unfold base_ok in Hb. apply andb_true_iff in Hb. destruct Hb as [W Hb]. rewrite Ec, Est in Hb. cbn in Hb.
    rewrite (cannot_be_a_base_eval b W). rewrite Hb. cbn [negb passert].
    assert ((if dbg then POk tt else POk tt) = POk tt) as Ed by (destruct dbg; reflexivity).
    rewrite Ed. cbn [pbind]. apply parse_relative_ok; [exact W | reflexivity | apply byte_eqb_nnth; exact Hb].
  - apply parse_non_special_ok. exact L.
Qed.

Lemma not_file_scheme s : list_eqb s s_file = false -> st_is_file (scheme_type_of s) = false.
Proof.
  intros H. unfold scheme_type_of.
  destruct (list_eqb s s_http || list_eqb s s_https || list_eqb s s_ws || list_eqb s s_wss || list_eqb s s_ftp); [reflexivity|].
  rewrite H. reflexivity.
Qed.

End Rel.

(* ---------- wf_b alone is not enough: a special base that is cannot-be-a-base ---------- *)
(* the record "http:x" (scheme_end 4, everything else 5, no host) satisfies wf_b - the parser never
   produces it: special URLs always get an authority - and joining "http:y" with it reaches the debug
   assertion of parse_with_scheme (debug builds) or pop_path's unwrap (release builds), for any host
   functions *)
Definition cbb_special_base : url := mkUrl [104; 116; 116; 112; 58; 120] 4 5 5 5 HI_None None 5 None None.
Definition cbb_special_ref : list N := [104; 116; 116; 112; 58; 121].

Lemma cbb_special_witness :
  usv_list cbb_special_ref /\ wf_b cbb_special_base = true
  /\ file_involved (Some cbb_special_base) cbb_special_ref = false /\ base_ok cbb_special_base = false
  /\ forall dbg hp hpo hd ovr, parse_url dbg hp hpo hd ovr (Some cbb_special_base) cbb_special_ref = PPanic.
Proof.
  split; [repeat constructor; unfold is_usv; lia|].
  split; [vm_compute; reflexivity|]. split; [vm_compute; reflexivity|]. split; [vm_compute; reflexivity|].
  intros dbg hp hpo hd ovr. destruct dbg; vm_compute; reflexivity.
Qed.

Lemma parse_statement_false :
  ~ (forall dbg hp hpo hd ovr base input, usv_list input ->
       (match base with Some b => wf_b b = true | None => True end) ->
       file_involved base input = false ->
       parse_url dbg hp hpo hd ovr base input <> PPanic).
Proof.
  intros H. destruct cbb_special_witness as (Hu & W & Hf & _ & Hp).
  apply (H true (fun _ => Err EmptyHost) (fun _ => Err EmptyHost) (fun _ => []) None (Some cbb_special_base) cbb_special_ref Hu W Hf).
  apply Hp.
Qed.
