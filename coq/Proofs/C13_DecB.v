(* Proofs/C13_DecB.v - the RFC 3492 decoder over unbounded integers with the decoder's 32-bit checks written out
   (b_dec_loop), and the model's u32 decoder characterised by it: the two succeed together, with the same string, and
   the model's decoder returns Err where the checked one fails (dec_loop_checked; decode_with_checked for the whole
   of decode_with).  The bias never exceeds 215 for deltas below 2^32; a variable-length integer q read from index i
   with i + q <= u32::MAX passes every check (the weight check in front of a final zero digit included). *)
From RU Require Import Base.Prelude Base.U32_c13 Model.Punycode Spec.Rfc3492
  Proofs.C13_Bounds Proofs.C13_Enc Proofs.C13_Dec Proofs.C13_Vli.

(* the unbounded decoder with the u32 checks of Decoder::decode made explicit *)
Definition b_dec_break (loop : list N -> bool -> N -> N -> N -> N -> N -> N -> list N -> option (list N))
    (rest : list N) (oldi i n bias : N) (out : list N) : option (list N) :=
  let len1 := len out + 1 in
  if (len1 <=? U32_MAX) && (n + i / len1 <=? U32_MAX) then
    let bias := s_adapt (i - oldi) len1 (oldi =? 0) in
    let n := n + i / len1 in
    let i := i mod len1 in
    if is_usvb n then loop rest false (i + 1) 1 s_base (i + 1) n bias (s_insert_at i n out) else None
  else None.

Fixpoint b_dec_loop (dig : N -> option N) (input : list N) (mid : bool) (oldi w k i n bias : N)
    (out : list N) : option (list N) :=
  match input with
  | [] => if mid then None else Some out
  | c :: rest =>
      match dig c with
      | None => None
      | Some digit =>
          if (digit * w <=? U32_MAX) && (i + digit * w <=? U32_MAX) then
            if digit <? s_threshold k bias then
              b_dec_break (b_dec_loop dig) rest oldi (i + digit * w) n bias out
            else if w * (s_base - s_threshold k bias) <=? U32_MAX then
              b_dec_loop dig rest true oldi (w * (s_base - s_threshold k bias)) (k + s_base) (i + digit * w) n bias out
            else None
          else None
      end
  end.

Lemma b_dec_loop_cons dig c rest mid oldi w k i n bias out :
  b_dec_loop dig (c :: rest) mid oldi w k i n bias out =
  match dig c with
  | None => None
  | Some digit =>
      if (digit * w <=? U32_MAX) && (i + digit * w <=? U32_MAX) then
        if digit <? s_threshold k bias then
          b_dec_break (b_dec_loop dig) rest oldi (i + digit * w) n bias out
        else if w * (s_base - s_threshold k bias) <=? U32_MAX then
          b_dec_loop dig rest true oldi (w * (s_base - s_threshold k bias)) (k + s_base) (i + digit * w) n bias out
        else None
      else None
  end.
Proof. reflexivity. Qed.

(* a successful checked run, inverted one step at a time *)
Lemma b_dec_break_inv loop rest oldi i n bias out s :
  b_dec_break loop rest oldi i n bias out = Some s ->
  len out + 1 <= U32_MAX /\ is_usvb (n + i / (len out + 1)) = true /\
  loop rest false (i mod (len out + 1) + 1) 1 s_base (i mod (len out + 1) + 1) (n + i / (len out + 1))
    (s_adapt (i - oldi) (len out + 1) (oldi =? 0)) (s_insert_at (i mod (len out + 1)) (n + i / (len out + 1)) out) = Some s.
Proof.
  unfold b_dec_break. cbv zeta.
  destruct ((len out + 1 <=? U32_MAX) && (n + i / (len out + 1) <=? U32_MAX)) eqn:E; [|discriminate].
  destruct (is_usvb (n + i / (len out + 1))); [|discriminate]. intros H. split; [lia|]. split; [reflexivity|exact H].
Qed.

Lemma b_dec_loop_inv dig c rest mid oldi w k i n bias out s :
  b_dec_loop dig (c :: rest) mid oldi w k i n bias out = Some s ->
  exists digit, dig c = Some digit /\ i + digit * w <= U32_MAX /\
    if digit <? s_threshold k bias then b_dec_break (b_dec_loop dig) rest oldi (i + digit * w) n bias out = Some s
    else b_dec_loop dig rest true oldi (w * (s_base - s_threshold k bias)) (k + s_base) (i + digit * w) n bias out = Some s.
Proof.
  rewrite b_dec_loop_cons. destruct (dig c) as [digit|]; [|discriminate]. intros H. exists digit.
  destruct ((digit * w <=? U32_MAX) && (i + digit * w <=? U32_MAX)) eqn:E1; [|discriminate].
  split; [reflexivity|]. split; [lia|].
  destruct (digit <? s_threshold k bias); [exact H|].
  destruct (w * (s_base - s_threshold k bias) <=? U32_MAX); [exact H|discriminate].
Qed.

(* the model's decoder is the checked decoder: where the checked run succeeds, so does the model's with the
   same string; where it fails the model's returns Err, provided that `length + 1` cannot overflow *)
Lemma dec_loop_checked cfg it base input : forall mid prev w k i length cp bias ins out,
  length = len out -> Rep it base (sort_by_key ins) 0 out ->
  match b_dec_loop (inst_digit it) input mid prev w k i cp bias out with
  | Some out' => exists ins', dec_loop cfg it input mid prev w k i length cp bias ins = Ok ins'
                              /\ Rep it base (sort_by_key ins') 0 out'
  | None => length + len input <= U32_MAX -> dec_loop cfg it input mid prev w k i length cp bias ins = Err
  end.
Proof.
  induction input as [|byte rest IH]; intros mid prev w k i length cp bias ins out Hlen HR.
  - cbn [b_dec_loop dec_loop]. destruct mid; [reflexivity|]. exists ins. split; [reflexivity|exact HR].
  - (* the bound passes to the rest of the input *)
    assert (IH' : forall mid prev w k i length' cp bias ins out, length' = len out -> length' <= length + 1 ->
              Rep it base (sort_by_key ins) 0 out ->
              match b_dec_loop (inst_digit it) rest mid prev w k i cp bias out with
              | Some out' => exists ins', dec_loop cfg it rest mid prev w k i length' cp bias ins = Ok ins'
                                          /\ Rep it base (sort_by_key ins') 0 out'
              | None => length + len (byte :: rest) <= U32_MAX ->
                        dec_loop cfg it rest mid prev w k i length' cp bias ins = Err
              end).
    { intros mid' prev' w' k' i' length' cp' bias' ins' out0 Hl Hle HR'.
      pose proof (IH mid' prev' w' k' i' length' cp' bias' ins' out0 Hl HR') as H.
      destruct (b_dec_loop (inst_digit it) rest mid' prev' w' k' i' cp' bias' out0); [exact H|].
      intros Hb. apply H. rewrite len_cons in Hb. clear - Hb Hle. lia. }
    clear IH. rewrite dec_loop_cons, b_dec_loop_cons.
    destruct (inst_digit it byte) as [digit|]; [|reflexivity].
    unfold checked_mul, checked_add, unchecked_add.
    destruct (digit * w <=? U32_MAX); cbn [andb]; [|reflexivity].
    destruct (i + digit * w <=? U32_MAX); cbn [andb]; [|reflexivity].
    cbv zeta. change (threshold k bias) with (s_threshold k bias). change BASE with s_base.
    destruct (digit <? s_threshold k bias).
    + unfold b_dec_break. cbv zeta. subst length.
      destruct (len out + 1 <=? U32_MAX) eqn:E2; cbn [andb]; [|intros Hb; rewrite len_cons in Hb; lia].
      rewrite adapt_ok by lia.
      destruct (cp + (i + digit * w) / (len out + 1) <=? U32_MAX); cbn [andb]; [|reflexivity].
      destruct (is_usvb (cp + (i + digit * w) / (len out + 1))); [|reflexivity].
      apply IH'; [rewrite len_insert_at; reflexivity|lia|].
      apply Rep_push; [exact HR|]. pose proof (N.mod_lt (i + digit * w) (len out + 1) ltac:(lia)). lia.
    + destruct (w * (s_base - s_threshold k bias) <=? U32_MAX); [|reflexivity].
      apply IH'; [exact Hlen|lia|exact HR].
Qed.

Lemma dec_loop_complete cfg it base input : forall mid prev w k i length cp bias ins out out',
  length = len out -> Rep it base (sort_by_key ins) 0 out ->
  b_dec_loop (inst_digit it) input mid prev w k i cp bias out = Some out' ->
  exists ins', dec_loop cfg it input mid prev w k i length cp bias ins = Ok ins'
               /\ Rep it base (sort_by_key ins') 0 out'.
Proof.
  intros mid prev w k i length cp bias ins out out' Hlen HR Hb.
  pose proof (dec_loop_checked cfg it base input mid prev w k i length cp bias ins out Hlen HR) as H.
  rewrite Hb in H. exact H.
Qed.

(* the checked run computes what the unbounded decoder computes *)
Lemma b_dec_loop_sound dig input : forall mid oldi w k i n bias out out',
  b_dec_loop dig input mid oldi w k i n bias out = Some out' ->
  s_dec_loop dig input mid oldi w k i n bias out = Some out'.
Proof.
  induction input as [|c rest IH]; intros mid oldi w k i n bias out out' Hb; [exact Hb|].
  apply b_dec_loop_inv in Hb. destruct Hb as [digit [Hd [_ Hb]]].
  rewrite s_dec_loop_cons, Hd. destruct (digit <? s_threshold k bias).
  - apply b_dec_break_inv in Hb. destruct Hb as [_ [Hu Hb]]. unfold s_dec_break. cbv zeta.
    change (N.of_nat (length out)) with (len out). rewrite Hu. exact (IH _ _ _ _ _ _ _ _ _ Hb).
  - exact (IH _ _ _ _ _ _ _ _ _ Hb).
Qed.

(* the whole decoder: split at the last delimiter, run the loop, read the insertions back *)
Lemma decode_with_checked cfg it p base rest : s_split p = (base, rest) -> len base <= U32_MAX ->
  if inst_external it && negb (forallb (fun c => c <? 128) base) then decode_with cfg it p = Err
  else match b_dec_loop (inst_digit it) rest false 0 1 s_base 0 s_initial_n s_initial_bias (map (inst_base_char it) base) with
       | Some s => decode_with cfg it p = Ok s
       | None => len base + len rest <= U32_MAX -> decode_with cfg it p = Err
       end.
Proof.
  intros Hs Hl. unfold decode_with, decoder_decode. rewrite split_eq, Hs.
  destruct (inst_external it && negb (forallb (fun c => c <? 128) base)); [reflexivity|].
  replace (u32_wrap (N.of_nat (length base))) with (len base)
    by (symmetry; apply N.mod_small; unfold len, U32_MOD, U32_MAX in *; lia).
  pose proof (dec_loop_checked cfg it base rest false 0 1 BASE 0 (len base) INITIAL_N INITIAL_BIAS []
                (map (inst_base_char it) base)) as H.
  specialize (H ltac:(unfold len; rewrite map_length; reflexivity) (Rep_base_only it base 0)).
  change s_base with BASE. change s_initial_n with INITIAL_N. change s_initial_bias with INITIAL_BIAS.
  destruct (b_dec_loop (inst_digit it) rest false 0 1 BASE 0 INITIAL_N INITIAL_BIAS (map (inst_base_char it) base)).
  - destruct H as [ins' [-> HR]]. exact (collect_Rep _ _ _ _ _ HR).
  - intros Hb. rewrite (H Hb). reflexivity.
Qed.

(* every instantiation: no panic, the iterator terminates *)
Lemma decode_with_no_panic cfg it p : len p <= U32_MAX -> forall s, decode_with cfg it p <> Panic s.
Proof.
  intros Hp s. destruct (s_split p) as [base rest] eqn:Es. pose proof (split_len _ _ _ Es) as Hl.
  pose proof (decode_with_checked cfg it p base rest Es ltac:(lia)) as H.
  destruct (inst_external it && negb (forallb (fun c => c <? 128) base)); [rewrite H; discriminate|].
  destruct (b_dec_loop _ _ _ _ _ _ _ _ _ _); rewrite H by lia; discriminate.
Qed.

(* the public decoder: an Ok result comes from a successful checked run *)
Lemma decode_b cfg p s : len p <= U32_MAX -> decode cfg p = Ok s ->
  exists base rest, s_split p = (base, rest) /\ forallb (fun c => c <? 128) base = true
    /\ b_dec_loop digit_u8 rest false 0 1 s_base 0 s_initial_n s_initial_bias base = Some s.
Proof.
  intros Hp Hd. destruct (s_split p) as [base rest] eqn:Es. pose proof (split_len _ _ _ Es) as Hl.
  pose proof (decode_with_checked cfg U8External p base rest Es ltac:(lia)) as H.
  fold (decode cfg p) in H. rewrite Hd, map_base_ext in H. cbn [inst_external andb inst_digit] in H.
  exists base, rest. split; [reflexivity|].
  destruct (forallb (fun c => c <? 128) base); [|discriminate]. split; [reflexivity|]. cbn [negb] in H.
  destruct (b_dec_loop digit_u8 rest false 0 1 s_base 0 s_initial_n s_initial_bias base);
    [inversion H; reflexivity|specialize (H ltac:(lia)); discriminate].
Qed.

(* conversely, where the checked run fails the public decoder returns None, in both configurations *)
Lemma decode_err_of_checked cfg p base rest : s_split p = (base, rest) -> forallb (fun c => c <? 128) base = true ->
  len p <= U32_MAX -> b_dec_loop digit_u8 rest false 0 1 s_base 0 s_initial_n s_initial_bias base = None ->
  decode cfg p = Err.
Proof.
  intros Hs Ha Hp Hb. pose proof (split_len _ _ _ Hs) as Hl.
  pose proof (decode_with_checked cfg U8External p base rest Hs ltac:(lia)) as H.
  cbn [inst_external inst_digit andb] in H. rewrite Ha, map_base_ext, Hb in H. apply H. lia.
Qed.

(* ... which is a successful run of the RFC 3492 decoder *)
Lemma decode_refines cfg p s : len p <= U32_MAX -> decode cfg p = Ok s -> s_decode p = Some s.
Proof.
  intros Hp Hd. destruct (decode_b cfg p s Hp Hd) as [base [rest [Es [Ha Hb]]]].
  unfold s_decode, s_decode_with. rewrite Es, Ha.
  rewrite (s_dec_loop_ext _ _ (fun c => eq_sym (digit_u8_rfc c))). exact (b_dec_loop_sound _ _ _ _ _ _ _ _ _ _ _ Hb).
Qed.

(* each turn of the adapt loop divides delta by 35 and adds 36 to k; j turns bring any delta below 456 * 35^j
   down to at most 455 *)
Lemma s_adapt_loop_bound j : forall fuel d k, d < 2 ^ N.of_nat fuel -> d < 456 * 35 ^ N.of_nat j ->
  fst (s_adapt_loop fuel d k) <= 455 /\ snd (s_adapt_loop fuel d k) <= k + 36 * N.of_nat j.
Proof.
  induction j as [|j IH]; intros fuel d k Hf Hd; rewrite s_adapt_loop_eq.
  - change (35 ^ N.of_nat 0) with 1 in Hd. replace (455 <? d) with false by lia. cbn [fst snd]. lia.
  - destruct (455 <? d) eqn:E; [|cbn [fst snd]; lia].
    destruct fuel as [|f]; [change (2 ^ N.of_nat 0) with 1 in Hf; lia|].
    rewrite Nat2N.inj_succ, N.pow_succ_r' in Hf, Hd.
    remember (2 ^ N.of_nat f) as P. remember (35 ^ N.of_nat j) as Q.
    specialize (IH f (d / 35) (k + 36)).
    destruct IH as [A B]; [lia|lia|]. rewrite Nat2N.inj_succ. split; [exact A|lia].
Qed.

(* the bias is at most 215 when the delta fits in 32 bits: 456 * 35^5 = 23949975000 > 2^32, so the loop turns at most
   5 times and k <= 36 * 5; the final term 36 * delta / (delta + 38) is at most 35; 215 = 36 * 5 + 35 *)
Lemma s_adapt_le d np first : d <= U32_MAX -> s_adapt d np first <= 215.
Proof.
  intros Hd. unfold s_adapt.
  remember (d / (if first then s_damp else 2)) as d1.
  assert (H1 : d1 <= d / 2).
  { subst d1. destruct first; [|lia]. unfold s_damp. lia. }
  assert (Hq : d1 / np <= d1).
  { destruct (N.eq_dec np 0) as [->|Hnp]; [destruct d1; cbn; lia|]. apply N.div_le_upper_bound; [exact Hnp|].
    destruct np; [lia|]. nia. }
  remember (d1 + d1 / np) as d2.
  assert (H2 : d2 <= U32_MAX) by (unfold U32_MAX in *; lia).
  pose proof (s_adapt_loop_bound 5 (N.to_nat (N.size d2)) d2 0) as HB.
  destruct (s_adapt_loop (N.to_nat (N.size d2)) d2 0) as [d3 k3]. cbn [fst snd] in HB.
  destruct HB as [A B].
  - rewrite N2Nat.id. apply N.size_gt.
  - change (456 * 35 ^ N.of_nat 5) with 23949975000. unfold U32_MAX in H2. lia.
  - change (s_base - s_tmin + 1) with 36. unfold s_skew.
    assert (36 * d3 / (d3 + 38) <= 35).
    { apply N.lt_succ_r. apply N.div_lt_upper_bound; lia. }
    change (N.of_nat 5) with 5 in B. lia.
Qed.

(* weights: the one in front of digit j (k = 36 * (j + 1)) is at most 35^j, which fits in 32 bits up to j = 6;
   from the seventh digit on the threshold is 26 whatever the bias (bias + 26 <= 241 < 252 <= k), so that the
   next weight w * 10 is below t * w *)
Lemma next_weight_fits j bias w : bias <= 215 -> w <= 35 ^ j ->
  s_threshold (36 * (j + 1)) bias * w <= U32_MAX -> w * (36 - s_threshold (36 * (j + 1)) bias) <= U32_MAX.
Proof.
  intros Hb Hw Htw. pose proof (s_threshold_range (36 * (j + 1)) bias) as Ht.
  destruct (N.le_gt_cases 6 j) as [Hj|Hj].
  - assert (E : s_threshold (36 * (j + 1)) bias = 26).
    { unfold s_threshold, s_tmax. replace (36 * (j + 1) <=? bias) with false by lia.
      replace (bias + 26 <=? 36 * (j + 1)) with true by lia. reflexivity. }
    rewrite E in *. lia.
  - pose proof (N.pow_le_mono_r 35 j 5 ltac:(lia) ltac:(lia)) as Hp. change (35 ^ 5) with 52521875 in Hp.
    pose proof (N.mul_le_mono w 52521875 (36 - s_threshold (36 * (j + 1)) bias) 35 ltac:(lia) ltac:(lia)).
    unfold U32_MAX. lia.
Qed.

(* a variable-length integer passes every check when i + q * w fits; the induction is that of C13_Vli.vli_decode,
   with next_weight_fits for the weight check *)
Lemma b_vli_decode dig (Hdig : forall d, d < 36 -> dig (s_digit_char d) = Some d) f :
  forall q j bias w i rest mid oldi n out, q < 2 ^ N.of_nat f ->
  bias <= 215 -> 1 <= w <= 35 ^ j -> i + q * w <= U32_MAX ->
  b_dec_loop dig (s_enc_vli (S f) q (36 * (j + 1)) bias ++ rest) mid oldi w (36 * (j + 1)) i n bias out
  = b_dec_break (b_dec_loop dig) rest oldi (i + q * w) n bias out.
Proof.
  induction f as [|f IH]; intros q j bias w i rest mid oldi n out Hq Hbias Hw Hfit; rewrite s_enc_vli_S;
    pose proof (s_threshold_range (36 * (j + 1)) bias) as Ht;
    pose proof (next_weight_fits j bias w Hbias (proj2 Hw)) as Hnext;
    remember (s_threshold (36 * (j + 1)) bias) as t;
    (destruct (q <? t) eqn:E;
     [cbn [app]; rewrite b_dec_loop_cons, Hdig, <- Heqt, E by lia;
      replace ((q * w <=? U32_MAX) && (i + q * w <=? U32_MAX)) with true by lia; reflexivity|]).
  - change (2 ^ N.of_nat 0) with 1 in Hq. lia.
  - change s_base with 36. destruct (vli_digit t q Ht ltac:(lia)) as [Hr Hsplit].
    pose proof (vli_fuel_step f t q Ht Hq) as Hq'.
    remember ((q - t) mod (36 - t)) as r eqn:Er. remember ((q - t) / (36 - t)) as q' eqn:Eq'. clear Er Eq'.
    assert (Hqw : q * w = (t + r) * w + q' * (w * (36 - t))) by (rewrite Hsplit at 1; ring).
    assert (Hdw : (t + r) * w <= q * w) by (apply N.mul_le_mono_r; rewrite Hsplit; apply N.le_add_r).
    assert (Htw : t * w <= (t + r) * w) by (apply N.mul_le_mono_r; lia).
    cbn [app]. rewrite b_dec_loop_cons, Hdig, <- Heqt by lia.
    replace (((t + r) * w <=? U32_MAX) && (i + (t + r) * w <=? U32_MAX)) with true by lia.
    replace (t + r <? t) with false by lia. change s_base with 36.
    replace (w * (36 - t) <=? U32_MAX) with true by lia.
    replace (36 * (j + 1) + 36) with (36 * (j + 1 + 1)) by lia.
    rewrite IH; [rewrite <- N.add_assoc, <- Hqw; reflexivity| | | |].
    + exact Hq'.
    + exact Hbias.
    + rewrite N.add_1_r, N.pow_succ_r'.
      pose proof (N.mul_le_mono w (35 ^ j) (36 - t) 35 ltac:(lia) ltac:(lia)).
      pose proof (N.mul_le_mono 1 w 1 (36 - t) ltac:(lia) ltac:(lia)). lia.
    + lia.
Qed.

(* at the start of a delta, with the fuel the encoder uses *)
Lemma b_vli_read dig (Hdig : forall d, d < 36 -> dig (s_digit_char d) = Some d) q bias i rest mid oldi n out :
  bias <= 215 -> i + q <= U32_MAX ->
  b_dec_loop dig (s_enc_vli (s_vli_fuel q) q s_base bias ++ rest) mid oldi 1 s_base i n bias out
  = b_dec_break (b_dec_loop dig) rest oldi (i + q) n bias out.
Proof.
  intros Hb Hfit. rewrite <- (N.mul_1_r q) at 3. unfold s_vli_fuel.
  apply (b_vli_decode dig Hdig _ q 0); [rewrite N2Nat.id; apply N.size_gt|exact Hb|cbn; lia|lia].
Qed.
