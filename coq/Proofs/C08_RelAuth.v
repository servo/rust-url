(* Proofs/C08_RelAuth.v - the make_relative inverse law for the classes where C02 proves the canonical form
   of EVERY parse result with authority: non-special "scheme://..." (C02_L1_auth) and the special non-file
   schemes (C02_L1_special), and then for ALL parse results of non-file schemes (C02's four forms).
   Both records in C02's form auth_url.  Inside MR_ok the texts in front of the path agree; the scheme is read
   off that text, the other stored values (username_end, host_start, host_end, host kind, port) are NOT read off
   it: instead the target's path, query and fragment are put behind the BASE's front - a canonical record with
   the target's serialization, hence (both being fixpoints of re-parsing, C02's L3) the target itself.  The two
   records are then hier_url's with one front and C08_RelLaw applies. *)
From RU Require Import Base.Prelude Base.Utf8 Base.Utf8Facts Model.AsciiSet Gen.Tables Model.PercentEncoding
  Model.HostT Model.UrlRecord Model.Parser Model.Setters Model.WF Model.MakeRelative Model.KnownC08
  Proofs.ListN Proofs.C14_Enc Proofs.C02_Enc Proofs.C02_Parts Proofs.C02_Opaque Proofs.C02_Path Proofs.C02_PathL1
  Proofs.C02_Reach Proofs.C02_AuthParts Proofs.C02_Auth Proofs.C02_AuthWf Proofs.C02_PathSp Proofs.C02_AuthSp
  Proofs.C02_AuthMain
  Proofs.C08_Input Proofs.C08_Simple Proofs.C08_Contain Proofs.C08_RelEval Proofs.C08_RelPath Proofs.C08_RelJoin
  Proofs.C08_RelMr Proofs.C08_RelLaw Proofs.C08_RelCanon Proofs.C08_RelNoAuth Proofs.C08_Absolute Proofs.C08_AbsNonfile.

(* what MR_ok says about any two records *)
Lemma mr_ok_cbb b t : mr_ok b t = true -> cannot_be_a_base b = Some false /\ cannot_be_a_base t = Some false.
Proof.
  unfold mr_ok, mr_class. intros H.
  destruct (cannot_be_a_base b) as [[|]|]; try (exfalso; lia).
  destruct (cannot_be_a_base t) as [[|]|]; try (exfalso; lia). split; reflexivity.
Qed.

Lemma mr_ok_paths b t : mr_ok b t = true ->
  exists pb pt, path b = Some pb /\ path t = Some pt /\ starts_with [47] pb = true /\ starts_with [47] pt = true.
Proof.
  unfold mr_ok, mr_class. intros H.
  destruct (cannot_be_a_base b) as [[|]|]; try (exfalso; lia).
  destruct (cannot_be_a_base t) as [[|]|]; try (exfalso; lia).
  destruct (path b) as [pb|]; [|exfalso; lia]. destruct (path t) as [pt|]; [|exfalso; lia].
  destruct (negb (list_eqb (nfirstn (path_start b) (ser b)) (nfirstn (path_start t) (ser t)))); [exfalso; lia|].
  destruct (starts_with [47] pb && starts_with [47] pt) eqn:E; [|exfalso; cbn [negb] in H; lia].
  apply andb_true_iff in E. exists pb, pt. tauto.
Qed.

(* special segments *)
Lemma segs_ok_special segs : forallb good_seg_sp segs = true -> forallb (seg_ok STSpecialNotFile) segs = true.
Proof. apply forallb_impl. intros s. exact (seg_ok_special STSpecialNotFile s eq_refl). Qed.

Section RelAuth.
Variables (dbg : bool) (hp hpo : list N -> result host) (hd : host -> list N).
Hypothesis HRT : HostRT hp hpo hd.

(* C02's record with authority as a hier_url *)
Lemma auth_is_hier sch ui h pt segs last q f :
  auth_url hd sch ui h pt (Some (segs, last)) q f
  = hier_url (auth_front hd sch ui h pt) (nlen sch) (nlen sch + 3 + ui_ulen ui) (nlen sch + 3 + nlen (ui_text ui))
             (nlen sch + 3 + nlen (ui_text ui) + nlen (hd h)) (hi_of_host h) pt segs last q f.
Proof. reflexivity. Qed.

Lemma auth_u_pre sch ui h pt p q f : u_pre (auth_url hd sch ui h pt p q f) = auth_front hd sch ui h pt.
Proof. unfold u_pre, auth_url, auth_ser, auth_pre. cbn [path_start ser]. rewrite <- app_assoc. apply nfirstn_app_len. Qed.

Lemma auth_none_path sch ui h pt q f : path (auth_url hd sch ui h pt None q f) = Some [].
Proof.
  unfold path, auth_url, auth_ser, auth_pre, u_slice, u_slice_from. cbn [query_start fragment_start ser path_start pth_text].
  rewrite app_nil_r. set (F := auth_front hd sch ui h pt).
  assert (slice_o (F ++ qf_text q f) (nlen F) (nlen F) = Some []) as Hs.
  { rewrite slice_o_some by (rewrite ?nlen_app; lia). rewrite N.sub_diag. reflexivity. }
  destruct q as [x|]; destruct f as [y|]; cbn [qf_qs qf_fs qf_qtext].
  - exact Hs.
  - exact Hs.
  - change (nlen []) with 0. rewrite N.add_0_r. exact Hs.
  - unfold qf_text. cbn [qf_qtext qf_ftext app]. rewrite app_nil_r.
    rewrite slice_from_o_some by lia. rewrite <- (app_nil_r F) at 2. rewrite nskipn_app_len. reflexivity.
Qed.

Lemma auth_path sch ui h pt p q f : path (auth_url hd sch ui h pt p q f) = Some (pth_text p).
Proof. destruct p as [[segs last]|]; [rewrite auth_is_hier; apply hier_path | apply auth_none_path]. Qed.

(* the scheme is read off the text in front of the path *)
Lemma front_scheme sch ui h pt sch' X : scheme_canon sch = true -> scheme_canon sch' = true ->
  auth_front hd sch ui h pt = sch' ++ 58 :: X -> sch' = sch /\ X = 47 :: 47 :: ui_text ui ++ hd h ++ port_text pt.
Proof.
  intros Hs Hs' E. unfold auth_front in E. rewrite <- !app_assoc in E. cbn [app] in E.
  apply (f_equal (parse_scheme CUrlParser)) in E. rewrite !parse_scheme_canon in E by assumption.
  inversion E. split; reflexivity.
Qed.

(* C02's L3 for both scheme types with authority *)
Lemma reparse_form st sch ui h pt p q f : st_is_file st = false ->
  auth_ok hp hpo hd st sch ui h pt p q f -> (st = STSpecialNotFile -> pth_ok_sp p) ->
  parse_url dbg hp hpo hd None None (auth_ser hd sch ui h pt p q f) = POk (auth_url hd sch ui h pt p q f).
Proof.
  intros Hnf K Kp. destruct st; [discriminate | |].
  - exact (reparse_special_form dbg hp hpo hd HRT sch ui h pt p q f K (Kp eq_refl)).
  - exact (reparse_auth_form dbg hp hpo hd HRT None sch ui h pt p q f K).
Qed.

(* two canonical records with authority inside MR_ok: the target IS the record with the base's front *)
Lemma auth_pair_front stb stt sch ui h pt bp bq bf sch' ui' h' pt' tp tq tf :
  st_is_file stb = false ->
  auth_ok hp hpo hd stb sch ui h pt bp bq bf ->
  auth_ok hp hpo hd stt sch' ui' h' pt' tp tq tf -> (stt = STSpecialNotFile -> pth_ok_sp tp) ->
  mr_ok (auth_url hd sch ui h pt bp bq bf) (auth_url hd sch' ui' h' pt' tp tq tf) = true ->
  exists bsegs blast tsegs tlast, bp = Some (bsegs, blast) /\ tp = Some (tsegs, tlast) /\ stt = stb
    /\ auth_url hd sch' ui' h' pt' tp tq tf = auth_url hd sch ui h pt tp tq tf
    /\ auth_ok hp hpo hd stb sch ui h pt tp tq tf.
Proof.
  intros Hnf Kb Kt Ktp Hok.
  pose proof (mr_ok_pre _ _ Hok) as Epre. rewrite !auth_u_pre in Epre.
  (* the same scheme, hence the same scheme type *)
  assert (sch' = sch) as Esch.
  { pose proof Epre as E. unfold auth_front at 2 in E. rewrite <- !app_assoc in E. cbn [app] in E.
    exact (proj1 (front_scheme sch ui h pt sch' _ (ak_sch _ _ _ _ _ _ _ _ _ _ _ Kb) (ak_sch _ _ _ _ _ _ _ _ _ _ _ Kt) E)). }
  subst sch'.
  assert (stt = stb) as Est by (rewrite <- (ak_st _ _ _ _ _ _ _ _ _ _ _ Kb), <- (ak_st _ _ _ _ _ _ _ _ _ _ _ Kt); reflexivity).
  subst stt.
  (* both paths start with '/' *)
  destruct (mr_ok_paths _ _ Hok) as (pb & pt0 & Pb & Pt & Sb & St). rewrite auth_path in Pb, Pt.
  inversion Pb; subst pb. inversion Pt; subst pt0. clear Pb Pt.
  destruct bp as [[bsegs blast]|]; [|discriminate]. destruct tp as [[tsegs tlast]|]; [|discriminate]. clear Sb St.
  exists bsegs, blast, tsegs, tlast. split; [reflexivity|]. split; [reflexivity|]. split; [reflexivity|].
  (* the target's path behind the base's front is canonical ... *)
  assert (auth_ok hp hpo hd stb sch ui h pt (Some (tsegs, tlast)) tq tf) as K'.
  { destruct Kb as [b1 b2 b3 b4 b5 b6 b7 b8 b9 b10 b11 b12]. destruct Kt as [t1 t2 t3 t4 t5 t6 t7 t8 t9 t10 t11 t12].
    unfold auth_pre in t11, t12. rewrite <- Epre in t11, t12.
    constructor; assumption. }
  split; [|exact K'].
  (* ... and has the target's serialization: it is the target *)
  pose proof (reparse_form stb sch ui h pt _ tq tf Hnf K' Ktp) as R1.
  pose proof (reparse_form stb sch ui' h' pt' _ tq tf Hnf Kt Ktp) as R2.
  assert (auth_ser hd sch ui' h' pt' (Some (tsegs, tlast)) tq tf = auth_ser hd sch ui h pt (Some (tsegs, tlast)) tq tf) as Es
    by (unfold auth_ser, auth_pre; rewrite Epre; reflexivity).
  rewrite Es, R1 in R2. congruence.
Qed.

(* the law for two canonical records with authority *)
Theorem relative_auth stb stt sch ui h pt bp bq bf sch' ui' h' pt' tp tq tf r :
  st_is_file stb = false ->
  auth_ok hp hpo hd stb sch ui h pt bp bq bf ->
  auth_ok hp hpo hd stt sch' ui' h' pt' tp tq tf -> (stt = STSpecialNotFile -> pth_ok_sp tp) ->
  mr_ok (auth_url hd sch ui h pt bp bq bf) (auth_url hd sch' ui' h' pt' tp tq tf) = true ->
  make_relative dbg (auth_url hd sch ui h pt bp bq bf) (auth_url hd sch' ui' h' pt' tp tq tf) = Some (Some r) ->
  parse_url dbg hp hpo hd None (Some (auth_url hd sch ui h pt bp bq bf)) r = POk (auth_url hd sch' ui' h' pt' tp tq tf).
Proof.
  intros Hnf Kb Kt Ktp Hok Hmr.
  destruct (auth_pair_front _ _ _ _ _ _ _ _ _ _ _ _ _ _ _ _ Hnf Kb Kt Ktp Hok)
    as (bsegs & blast & tsegs & tlast & -> & -> & -> & Et & K').
  rewrite Et in *. clear Et Kt.
  rewrite !auth_is_hier in *.
  apply relative_hier; [|exact Hok | exact Hmr].
  pose proof (front_sch hd sch ui h pt []) as Es. rewrite app_nil_r in Es.
  destruct Kb as [b1 b2 b3 b4 b5 b6 b7 b8 b9 b10 b11 b12]. destruct K' as [t1 t2 t3 t4 t5 t6 t7 t8 t9 t10 t11 t12].
  cbn [pth_ok] in b7, t7. destruct b7 as [Hbs Hbl]. destruct t7 as [Hts Htl].
  constructor; rewrite ?Es, ?b2; try assumption.
  - left. exists sch, (ui_text ui ++ hd h ++ port_text pt). split; [unfold auth_front; rewrite <- app_assoc; reflexivity | reflexivity].
  - apply good_segs_no_slash. exact Hbs.
  - destruct (good_seg_parts blast Hbl) as (_ & Hn & _). exact Hn.
  - destruct stb; [discriminate Hnf | | apply segs_ok_nonspecial; exact Hts].
    destruct (Ktp eq_refl) as [Hs _]. apply segs_ok_special. exact Hs.
  - destruct stb; [discriminate Hnf | | apply seg_ok_nonspecial; exact Htl].
    destruct (Ktp eq_refl) as [_ Hl]. apply seg_ok_special; [reflexivity | exact Hl].
Qed.

(* records with and without authority never share the text in front of the path *)
Lemma front_mismatch sch T sch' ui h pt : scheme_canon sch = true -> scheme_canon sch' = true ->
  auth_front hd sch' ui h pt = (sch ++ [58]) ++ marker_of T -> False.
Proof.
  intros Hs Hs' E. rewrite <- app_assoc in E. cbn [app] in E.
  destruct (front_scheme sch' ui h pt sch _ Hs' Hs E) as [_ E2].
  unfold marker_of in E2. destruct (starts_with s_ss T); discriminate.
Qed.

(* any two of C02's canonical forms inside MR_ok are of the same kind *)
Lemma forms_pair_cases (K : url -> url -> Prop) b t :
  nonfile_form hp hpo hd b -> nonfile_form hp hpo hd t -> mr_ok b t = true ->
  (forall schb bsegs blast bq bf scht tsegs tlast tq tf,
     C02_Path.noauth_ok schb bsegs blast bq bf -> C02_Path.noauth_ok scht tsegs tlast tq tf ->
     K (noauth_url schb (path_text bsegs blast) bq bf) (noauth_url scht (path_text tsegs tlast) tq tf)) ->
  (forall stb stt sch ui h pt bp bq bf sch' ui' h' pt' tp tq tf, st_is_file stb = false ->
     auth_ok hp hpo hd stb sch ui h pt bp bq bf -> auth_ok hp hpo hd stt sch' ui' h' pt' tp tq tf ->
     (stt = STSpecialNotFile -> pth_ok_sp tp) ->
     K (auth_url hd sch ui h pt bp bq bf) (auth_url hd sch' ui' h' pt' tp tq tf)) ->
  K b t.
Proof.
  intros Fb Ft Hok Kna Kau. destruct (mr_ok_cbb b t Hok) as [Cb Ct]. pose proof (mr_ok_pre b t Hok) as Epre.
  (* a form that can be a base is not opaque: it is "scheme:/path" or has an authority *)
  assert (forall u, nonfile_form hp hpo hd u -> cannot_be_a_base u = Some false ->
            (exists sch segs last q f, C02_Path.noauth_ok sch segs last q f /\ u = noauth_url sch (path_text segs last) q f)
            \/ (exists st sch ui h pt p q f, st_is_file st = false /\ auth_ok hp hpo hd st sch ui h pt p q f
                  /\ (st = STSpecialNotFile -> pth_ok_sp p) /\ u = auth_url hd sch ui h pt p q f)) as Kind.
  { intros u [sch P q f Ku ->|sch segs last q f Ku ->|sch ui h pt p q f Ku ->|sch ui h pt p q f Ku Kp ->] Cu.
    - rewrite (opaque_url_cbb sch P q f Ku) in Cu. discriminate.
    - left. exists sch, segs, last, q, f. split; [exact Ku | reflexivity].
    - right. exists STNotSpecial, sch, ui, h, pt, p, q, f.
      split; [reflexivity|]. split; [exact Ku|]. split; [discriminate | reflexivity].
    - right. exists STSpecialNotFile, sch, ui, h, pt, p, q, f.
      split; [reflexivity|]. split; [exact Ku|]. split; [intros _; exact Kp | reflexivity]. }
  destruct (Kind b Fb Cb) as [(schb & bsegs & blast & bq & bf & Kb & ->)|(stb & schb & uib & hb & ptb & bp & bq & bf & Hnf & Kb & Kbp & ->)];
    destruct (Kind t Ft Ct) as [(scht & tsegs & tlast & tq & tf & Kt & ->)|(stt & scht & uit & ht & ptt & tp & tq & tf & _ & Kt & Ktp & ->)].
  - apply Kna; assumption.
  - exfalso. rewrite noauth_u_pre, auth_u_pre in Epre. symmetry in Epre.
    exact (front_mismatch _ _ _ _ _ _ (nk_sch _ _ _ _ _ Kb) (ak_sch _ _ _ _ _ _ _ _ _ _ _ Kt) Epre).
  - exfalso. rewrite noauth_u_pre, auth_u_pre in Epre.
    exact (front_mismatch _ _ _ _ _ _ (nk_sch _ _ _ _ _ Kt) (ak_sch _ _ _ _ _ _ _ _ _ _ _ Kb) Epre).
  - apply (Kau stb stt); assumption.
Qed.

(* the law for any two of C02's canonical forms *)
Theorem relative_forms b t r : nonfile_form hp hpo hd b -> nonfile_form hp hpo hd t ->
  mr_ok b t = true -> make_relative dbg b t = Some (Some r) ->
  parse_url dbg hp hpo hd None (Some b) r = POk t.
Proof.
  intros Fb Ft Hok. revert r. generalize Hok.
  apply (forms_pair_cases (fun b t => mr_ok b t = true -> forall r, make_relative dbg b t = Some (Some r) ->
                                      parse_url dbg hp hpo hd None (Some b) r = POk t) b t Fb Ft Hok).
  - intros schb bsegs blast bq bf scht tsegs tlast tq tf Kb Kt Hok' r Hmr.
    exact (relative_noauth dbg hp hpo hd schb bsegs blast bq bf scht tsegs tlast tq tf r Kb Kt Hok' Hmr).
  - intros stb stt sch ui h pt bp bq bf sch' ui' h' pt' tp tq tf Hnf Kb Kt Ktp Hok' r Hmr.
    exact (relative_auth stb stt sch ui h pt bp bq bf sch' ui' h' pt' tp tq tf r Hnf Kb Kt Ktp Hok' Hmr).
Qed.

(* ... hence for any two parse results of non-file schemes *)
Theorem relative_parsed bi ti b t r : host_above hp hpo hd -> usv_list bi -> usv_list ti ->
  nonfile_input bi = true -> nonfile_input ti = true ->
  parse_url dbg hp hpo hd None None bi = POk b -> parse_url dbg hp hpo hd None None ti = POk t ->
  mr_ok b t = true -> make_relative dbg b t = Some (Some r) ->
  parse_url dbg hp hpo hd None (Some b) r = POk t.
Proof.
  intros HAb Hub Hut Cb Ct Pb Pt Hok Hmr.
  exact (relative_forms b t r (nonfile_parse_form dbg hp hpo hd HRT bi b HAb Hub Cb Pb)
           (nonfile_parse_form dbg hp hpo hd HRT ti t HAb Hut Ct Pt) Hok Hmr).
Qed.

End RelAuth.

Theorem relative_parsed_HostOK dbg hp hpo hd bi ti b t r :
  HostOK hp hpo hd -> host_above hp hpo hd -> usv_list bi -> usv_list ti ->
  nonfile_input bi = true -> nonfile_input ti = true ->
  parse_url dbg hp hpo hd None None bi = POk b -> parse_url dbg hp hpo hd None None ti = POk t ->
  mr_ok b t = true -> make_relative dbg b t = Some (Some r) ->
  parse_url dbg hp hpo hd None (Some b) r = POk t.
Proof. intros HOK. exact (relative_parsed dbg hp hpo hd (HostOK_RT _ _ _ HOK) bi ti b t r). Qed.

(* non-vacuity (host functions ex_hp / ex_hd of C02_AuthMain.v) *)
From Coq Require Import String.
Open Scope string_scope.

(* both inputs are in the class, the pair of parse results is inside MR_ok, make_relative answers rs, and
   (what the theorem says) joining rs to the base gives the target *)
Definition ex_mr (bs ts rs : string) : bool :=
  match ex_parse bs, ex_parse ts with
  | POk b, POk t =>
      nonfile_input (B bs) && nonfile_input (B ts) && mr_ok b t
      && match make_relative true b t with
         | Some (Some r) =>
             list_eqb r (B rs)
             && match parse_url true ex_hp ex_hp ex_hd None (Some b) r with POk v => url_eqb v t | _ => false end
         | _ => false
         end
  | _, _ => false
  end.

Lemma rel_parsed_inhabited :
  ex_mr "http://u@h.x:81/a/b/c?q" "HTTP:\\u@h.x:81\a\d\.\e#f" "../d/e#f" = true
  /\ ex_mr "https://h/a/b" "https://h/a/b?x" "?x" = true
  /\ ex_mr "a://u:p@h.x:81/x/y" "a://u:p@h.x:81/x/z\w?q" "z\w?q" = true
  /\ ex_mr "a:///x/y" "a:///" "../" = true
  /\ ex_mr "a:/x/y" "a:/z" "../z" = true.
Proof. vm_compute. repeat split. Qed.

(* the same for canonical records of any origin (C02's three hierarchical forms) *)
Definition canon_hier_form (hp hpo : list N -> result host) (hd : host -> list N) (u : url) : Prop :=
  (exists sch segs last q f, noauth_ok sch segs last q f /\ u = noauth_url sch (path_text segs last) q f)
  \/ canon_auth hp hpo hd STNotSpecial u \/ canon_special hp hpo hd u.

Lemma canon_hier_nonfile hp hpo hd u : canon_hier_form hp hpo hd u -> nonfile_form hp hpo hd u.
Proof.
  intros [(sch & segs & last & q & f & K & E)|[(sch & ui & h & pt & p & q & f & K & E)|(sch & ui & h & pt & p & q & f & K & Kp & E)]].
  - exact (NF_noauth hp hpo hd u sch segs last q f K E).
  - exact (NF_auth hp hpo hd u sch ui h pt p q f K E).
  - exact (NF_special hp hpo hd u sch ui h pt p q f K Kp E).
Qed.

Theorem relative_canon_forms dbg hp hpo hd b t r : HostRT hp hpo hd ->
  canon_hier_form hp hpo hd b -> canon_hier_form hp hpo hd t ->
  mr_ok b t = true -> make_relative dbg b t = Some (Some r) ->
  parse_url dbg hp hpo hd None (Some b) r = POk t.
Proof.
  intros HRT Fb Ft. exact (relative_forms dbg hp hpo hd HRT b t r (canon_hier_nonfile _ _ _ b Fb) (canon_hier_nonfile _ _ _ t Ft)).
Qed.
