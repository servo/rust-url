(* Proofs/C05_PathSpSteps.v - "the path of a special-scheme URL contains no backslash" along the mutators.
   For a special URL (which has an authority: AS) every gated step either keeps path() or writes a new path through the
   path states of a special scheme (Url::set_path, quirks set_pathname: C05_PathSp.parse_path_start_nb;
   path_segments_mut sessions: SPECIAL_PATH_SEGMENT encodes '\').  Which of the two happens is read off
   C05_HostText.step3_frame; the scheme class only goes from special to special (C05_HostText.FR), so
   BSg u := special scheme -> path() has no '\' is an invariant of CReachF. *)
From RU Require Import Base.Prelude Base.Utf8 Base.Utf8Facts Model.AsciiSet Gen.Tables Model.PercentEncoding
  Model.HostT Model.UrlRecord Model.Parser Model.Setters Model.WF Model.FormUrlencoded Model.QueryPairs
  Proofs.ListN Proofs.C03_WF Proofs.C05_Enc Proofs.C05_Parser Proofs.C05_Setters Proofs.C05_History
  Proofs.C05_Frag Proofs.C05_Query Proofs.C05_Comp Proofs.C05_PathClean Proofs.C05_CompSteps Proofs.C05_CompHist
  Proofs.C06_List Proofs.C06_WFI Proofs.C06_Tail Proofs.C06_Steps Proofs.C06_Suffix
  Proofs.C06_Front Proofs.C06_Atomic Proofs.C06_FragQuery Proofs.C06_Port Proofs.C06_Cred Proofs.C06_Scheme
  Proofs.C06_HostNone Proofs.C06_Host Proofs.C06_PathParser Proofs.C06_Path Proofs.C06_Segments Proofs.C06_PathNoAuth
  Proofs.C06_Main Proofs.C06_PathMore Proofs.C06_Quirks Proofs.C04_ParseTotal Proofs.C03_ReachParts
  Proofs.C05_ParseAll Proofs.C05_CompSteps2 Proofs.C05_CompReach Proofs.C05_BaseOk Proofs.C05_CompSteps3 Proofs.C05_Alphabet
  Proofs.C05_AuthOfs Proofs.C05_AuthParse Proofs.C05_HostText Proofs.C05_PathSp Proofs.C05_PathSpParse.

(* the clause on the getter *)
Definition BSg (u : url) : Prop := spb u = true -> forall p, path u = Some p -> forallb nb p = true.

Lemma bs_bsg u : wf_b u = true -> BS u -> BSg u.
Proof. intros W H Hs p Hp. rewrite (path_eval u W) in Hp. inversion Hp; subst p. exact (H Hs). Qed.

Lemma bsg_bs u : wf_b u = true -> BSg u -> BS u.
Proof. intros W H Hs. exact (H Hs _ (path_eval u W)). Qed.

(* path_segments_mut sessions on a special URL *)
Lemma session_nb dbg u ops u' : wf_b u = true ->
  byte_eqb (ser u) (scheme_end u + 1) 47 = true -> spb u = true ->
  forallb nb (piece u (path_start u) (path_end u)) = true ->
  path_segments_session dbg u ops = Some (u', SOk) ->
  exists P, u' = with_path u P /\ forallb nb P = true.
Proof.
  intros W Hsl Hsp. apply (session_inv dbg nb eq_refl u ops u' W Hsl).
  intros ser l s' hh' rem. apply pinvb_parse_path; [|exact Hsp].
  apply nlen_nfirstn. pose proof (path_start_le_len u W). lia.
Qed.

(* what a gated step does to path() of a special URL *)
Lemma special_layout u : wf_b u = true -> AS u -> spb u = true ->
  has_authority_b u = true /\ byte_eqb (ser u) (scheme_end u + 1) 47 = true /\ is_opaque_b u = false.
Proof.
  intros W A Hs. pose proof (wf_ao_auth u W (A Hs)) as Ha. pose proof (auth_sl1 u Ha) as S1. unfold sl1 in S1.
  assert (byte_eqb (ser u) (scheme_end u + 1) 47 = true) as Hb by (apply byte_eqb_true_iff; exact S1).
  split; [exact Ha|]. split; [exact Hb|]. unfold is_opaque_b. rewrite Hb. reflexivity.
Qed.

(* path() stays, or is a new backslash-free text *)
Definition PK (u u' : url) : Prop := path u' = path u \/ exists P, path u' = Some P /\ forallb nb P = true.

Section PathSteps.
Variable dbg : bool.
Variable hp hpo : list N -> result host.
Variable hd : host -> list N.
Hypothesis HW : HostWf hp hpo hd.

Lemma set_path_pk u p u' : wfh u -> AS u -> spb u = true -> usv_list p -> auth_end_ok u ->
  set_path dbg u p = Some u' -> PK u u'.
Proof.
  intros WH A Hs Hp Hx H. destruct (special_layout u (proj1 WH) A Hs) as (Ha & Hsl & Ho).
  assert (path_gate u u') as G by (unfold path_gate; rewrite Ha; exact I).
  destruct (set_path_result dbg u p u' WH Hp Hx (fun Ho' => ltac:(rewrite Ho in Ho'; discriminate)) G H)
    as (P & (_ & _ & _ & _ & _ & Pp) & [[Ho' _]|(hh & rem & Epp)]); [rewrite Ho in Ho'; discriminate|].
  destruct (parse_path_start_nb dbg CSetter _ true _ p _ hh rem Hs Epp) as (P' & E & HP).
  apply app_inv_head in E. subst P'. right. exists P. split; assumption.
Qed.

Lemma session_pk u ops u' st : wfh u -> AS u -> spb u = true -> path_nb u -> Forall psm_op_usv ops ->
  path_segments_session dbg u ops = Some (u', st) -> PK u u'.
Proof.
  intros WH A Hs Hnb Hops H. pose proof WH as [W _]. destruct (special_layout u W A Hs) as (Ha & Hsl & Ho).
  destruct st; [|rewrite (path_segments_session_atomic dbg u ops u' _ H) by discriminate; left; reflexivity ..].
  assert (path_gate u u') as G by (unfold path_gate; rewrite Ha; exact I).
  destruct (session_result dbg u ops u' WH Hops G H) as (_ & P & EP & (_ & _ & _ & _ & _ & Pp)).
  destruct (session_nb dbg u ops u' W Hsl Hs Hnb H) as (P' & EP' & HP').
  rewrite EP in EP'. apply with_path_inj in EP'. subst P'. right. exists P. split; assumption.
Qed.

Lemma q_set_pathname_pk u v u' : wfh u -> AS u -> spb u = true -> usv_list v -> auth_end_ok u ->
  q_set_pathname dbg u v = Some u' -> PK u u'.
Proof.
  intros WH A Hs Hv Hx H.
  destruct (q_set_pathname_as_set_path dbg u v u' (proj1 WH) Hv H) as [->|(_ & p & Hp & E)]; [left; reflexivity|].
  exact (set_path_pk u p u' WH A Hs Hp Hx E).
Qed.

(* every gated step on a special URL *)
Theorem path_step3 u o u' : IpDisp hd -> CInv dbg u -> AS u -> spb u = true -> path_nb u ->
  step_gate3 hp hpo hd u o u' -> apply_op dbg hp hpo hd u o = Some u' -> PK u u'.
Proof.
  intros HI K A Hs Hnb G H. pose proof K as [[W HT] _]. pose proof (conj W HT : wfh u) as WH.
  destruct (special_layout u W A Hs) as (Ha & Hsl & Ho).
  destruct (proj2 (step3_frame dbg hp hpo hd HW u o u' HI K G H) Ho) as [Hop|E]; [|left; exact E].
  destruct o; try contradiction; cbn [apply_op step_gate3 step_gate2 step_gate] in H, G.
  - destruct G as (G1 & G2 & _). exact (set_path_pk u p u' WH A Hs G1 G2 H).
  - apply drop_status_some in H. destruct H as [st H]. destruct G as [G1 _]. exact (session_pk u ops u' st WH A Hs Hnb G1 H).
  - destruct G as (G1 & G2 & _). exact (q_set_pathname_pk u v u' WH A Hs G1 G2 H).
Qed.

(* BSg is kept by a gated step *)
Theorem bsg_step u o u' : IpDisp hd -> CInv dbg u -> AS u -> BSg u ->
  step_gate3 hp hpo hd u o u' -> apply_op dbg hp hpo hd u o = Some u' -> BSg u'.
Proof.
  intros HI K A Hb G H Hs' p Hp. pose proof K as [[W _] _].
  destruct (frame_step3 dbg hp hpo hd HW u o u' HI K G H) as [Fs _]. pose proof (Fs Hs') as Hs.
  destruct (path_step3 u o u' HI K A Hs (bsg_bs u W Hb Hs) G H) as [E|(P & E & HP)].
  - rewrite E in Hp. exact (Hb Hs p Hp).
  - rewrite E in Hp. inversion Hp; subst p. exact HP.
Qed.

End PathSteps.
