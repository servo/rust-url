(* Proofs/C13_Rt.v - Bootstring over unbounded integers is invertible: s_decode (s_encode s) = Some s.
   The decoder's state <n, i> is read as the single integer n * (L + 1) + i (L = current output length);
   the encoder's running delta is exactly what is missing to reach <m, pos>. *)
From RU Require Import Base.Prelude Spec.Rfc3492 Proofs.C13_Enc Proofs.C13_Dec Proofs.C13_Vli.

Definition le_m (m : N) (c : N) : bool := c <=? m.
Definition lt_m (m : N) (c : N) : bool := c <? m.

Lemma len_app a b : len (a ++ b) = len a + len b.
Proof. unfold len. rewrite app_length. lia. Qed.

Lemma insert_at_app A : forall c B, s_insert_at (len A) c (A ++ B) = A ++ c :: B.
Proof.
  induction A as [|a A IH]; intros c B.
  - rewrite len_nil. cbn [app]. apply s_insert_at_0.
  - rewrite len_cons. cbn [app]. rewrite s_insert_at_pos by lia.
    replace (len A + 1 - 1) with (len A) by lia. rewrite IH. reflexivity.
Qed.

Lemma filter_len_all p l : len (filter p l) = len l -> filter p l = l.
Proof.
  induction l as [|c r IH]; intros H; [reflexivity|]. cbn [filter] in *.
  destruct (p c).
  - rewrite !len_cons in H. f_equal. apply IH. lia.
  - exfalso. rewrite len_cons in H. pose proof (cnt_le p r) as Hc. rewrite cnt_filter in Hc. lia.
Qed.

Lemma filter_le_snoc m pre c : filter (le_m m) (pre ++ [c]) = filter (le_m m) pre ++ (if c <=? m then [c] else []).
Proof. rewrite filter_app. cbn [filter]. unfold le_m at 2. destruct (c <=? m); reflexivity. Qed.

Lemma filter_lt_cons m c suf : filter (lt_m m) (c :: suf) = (if c <? m then [c] else []) ++ filter (lt_m m) suf.
Proof. cbn [filter]. unfold lt_m at 1. destruct (c <? m); reflexivity. Qed.

Lemma filter_lt_min l n m : n <= m -> (forall c, In c l -> n <= c -> m <= c) ->
  filter (lt_m n) l = filter (lt_m m) l.
Proof.
  intros Hnm H. apply filter_ext_in. intros c Hc. unfold lt_m. specialize (H c Hc).
  destruct (c <? n) eqn:E1; destruct (c <? m) eqn:E2; try reflexivity; lia.
Qed.

(* the encoder and the decoder side by side.  The encoder is in its pass for code point m, has walked `pre`
   and has `suf` before it, with running delta d and h code points handled; the decoder is in state <nd, id>
   in front of the next delta, with output `out`.  They are coupled when `out` is what the encoder has handled
   so far, and d is exactly what the decoder's state, read as the integer nd * (h + 1) + id, lacks to reach
   <m, position of the next m in out>.  (id =? 0) = (h =? b): the two sides agree on adapt's `first time`. *)
Definition coupled (m b : N) (pre suf : list N) (d h nd id : N) (out : list N) : Prop :=
  out = filter (le_m m) pre ++ filter (lt_m m) suf /\ h = len out /\ nd <= m /\ b <= h /\ (id =? 0) = (h =? b)
  /\ nd * (h + 1) + id + d = m * (h + 1) + len (filter (le_m m) pre).

(* a smaller scalar is already in the output: one more step for the decoder *)
Lemma coupled_lt m b pre c suf d h nd id out : c < m ->
  coupled m b pre (c :: suf) d h nd id out -> coupled m b (pre ++ [c]) suf (d + 1) h nd id out.
Proof.
  intros Hc (Hout & Hh & Hnd & Hb & Hfl & Heq). unfold coupled.
  rewrite filter_lt_cons in Hout. rewrite filter_le_snoc, len_app.
  replace (c <? m) with true in Hout by lia. replace (c <=? m) with true by lia. change (len [c]) with 1.
  split; [rewrite Hout, <- app_assoc; reflexivity|]. repeat split; try assumption. lia.
Qed.

(* a larger scalar is not handled yet *)
Lemma coupled_gt m b pre c suf d h nd id out : m < c ->
  coupled m b pre (c :: suf) d h nd id out -> coupled m b (pre ++ [c]) suf d h nd id out.
Proof.
  intros Hc (Hout & Hh & Hnd & Hb & Hfl & Heq). unfold coupled.
  rewrite filter_lt_cons in Hout. rewrite filter_le_snoc.
  replace (c <? m) with false in Hout by lia. replace (c <=? m) with false by lia. rewrite app_nil_r.
  repeat split; assumption.
Qed.

(* at an occurrence of m the delta d is written; the decoder, reading it, arrives at <m, pos> and inserts there *)
Lemma coupled_eq m b pre suf d h nd id out : coupled m b pre (m :: suf) d h nd id out ->
  len (filter (le_m m) pre) <= h /\ nd + (id + d) / (h + 1) = m /\ (id + d) mod (h + 1) = len (filter (le_m m) pre)
  /\ coupled m b (pre ++ [m]) suf 0 (h + 1) m (len (filter (le_m m) pre) + 1) (s_insert_at (len (filter (le_m m) pre)) m out).
Proof.
  intros (Hout & Hh & Hnd & Hb & Hfl & Heq). remember (len (filter (le_m m) pre)) as pos.
  rewrite filter_lt_cons in Hout. replace (m <? m) with false in Hout by lia. cbn [app] in Hout.
  assert (Hpos : pos <= h) by (rewrite Hh, Hout, len_app, <- Heqpos; lia).
  assert (Hsum : id + d = (h + 1) * (m - nd) + pos).
  { rewrite (N.mul_comm (h + 1)), N.mul_sub_distr_r. pose proof (N.mul_le_mono_r nd m (h + 1) Hnd). lia. }
  split; [exact Hpos|]. split; [|split].
  - rewrite <- (N.div_unique (id + d) (h + 1) (m - nd) pos ltac:(lia) Hsum). lia.
  - symmetry. apply (N.mod_unique (id + d) (h + 1) (m - nd)); [lia|exact Hsum].
  - unfold coupled. rewrite filter_le_snoc, len_app, <- Heqpos, len_insert_at.
    replace (m <=? m) with true by lia. change (len [m]) with 1.
    split; [rewrite Hout, Heqpos, insert_at_app, <- app_assoc; reflexivity|].
    replace (pos + 1 =? 0) with false by lia. replace (h + 1 =? b) with false by lia.
    repeat split; lia.
Qed.

Lemma coupled_done m b pre d h nd id out : coupled m b pre [] d h nd id out ->
  out = filter (le_m m) pre /\ len (filter (le_m m) pre) = h.
Proof. intros (Hout & Hh & _). cbn [filter] in Hout. rewrite app_nil_r in Hout. subst out. split; [reflexivity|congruence]. Qed.

(* a new pass: the decoder's distance to <m, 0> is (m - n) * (h + 1) more than to <n, 0> *)
Lemma coupled_min n m b input d h nd id out : n <= m -> (forall c, In c input -> n <= c -> m <= c) ->
  coupled n b [] input d h nd id out -> coupled m b [] input (d + (m - n) * (h + 1)) h nd id out.
Proof.
  intros Hnm Hmin (Hout & Hh & Hnd & Hb & Hfl & Heq). unfold coupled. cbn [filter app] in *. rewrite len_nil in *.
  rewrite <- (filter_lt_min input n m Hnm Hmin). repeat split; try assumption; [lia|].
  rewrite N.mul_sub_distr_r. pose proof (N.mul_le_mono_r n m (h + 1) Hnm). lia.
Qed.

(* the end of a pass: <m, h> + 1 = <m + 1, 0> *)
Lemma coupled_next m b input d h nd id out :
  coupled m b input [] d h nd id out -> coupled (m + 1) b [] input (d + 1) h nd id out.
Proof.
  intros C. destruct (coupled_done _ _ _ _ _ _ _ _ C) as [Hout Hlen].
  destruct C as (_ & Hh & Hnd & Hb & Hfl & Heq). unfold coupled. cbn [filter app]. rewrite len_nil.
  split; [rewrite Hout; apply filter_ext; intros c; unfold le_m, lt_m; lia|].
  repeat split; try assumption; [lia|]. rewrite N.mul_add_distr_r. lia.
Qed.

Lemma coupled_cnt n b input d h nd id out : coupled n b [] input d h nd id out -> h = cnt (fun c => c <? n) input.
Proof. intros (Hout & Hh & _). rewrite cnt_filter, Hh, Hout. reflexivity. Qed.

Section RT.
  Variable dig : N -> option N.
  Hypothesis Hdig : forall d, d < 36 -> dig (s_digit_char d) = Some d.

  Lemma inner_rt : forall suf pre m b d bias h nd id out rest,
    is_usvb m = true -> coupled m b pre suf d h nd id out ->
    match s_enc_inner suf m b d bias h with
    | (d', bias', h', o) =>
        exists nd' id' out',
          s_dec_loop dig (o ++ rest) false id 1 s_base id nd bias out
            = s_dec_loop dig rest false id' 1 s_base id' nd' bias' out'
          /\ coupled m b (pre ++ suf) [] d' h' nd' id' out'
    end.
  Proof.
    induction suf as [|c suf IH]; intros pre m b d bias h nd id out rest Hm C.
    - exists nd, id, out. rewrite app_nil_r. split; [reflexivity|exact C].
    - rewrite s_enc_inner_cons. cbv zeta.
      replace (pre ++ c :: suf) with ((pre ++ [c]) ++ suf) by (rewrite <- app_assoc; reflexivity).
      destruct (N.lt_trichotomy c m) as [Hc|[->|Hc]].
      + replace (c =? m) with false by lia. replace (c <? m) with true by lia.
        exact (IH _ _ _ _ bias _ _ _ _ rest Hm (coupled_lt _ _ _ _ _ _ _ _ _ _ Hc C)).
      + rewrite N.eqb_refl. replace (m <? m) with false by lia.
        destruct (coupled_eq _ _ _ _ _ _ _ _ _ C) as (_ & Hn & Hpos & C').
        specialize (IH _ _ _ _ (s_adapt d (h + 1) (h =? b)) _ _ _ _ rest Hm C').
        destruct (s_enc_inner suf m b 0 (s_adapt d (h + 1) (h =? b)) (h + 1)) as [[[d' bias'] h'] o'].
        destruct IH as (nd' & id' & out' & E & C''). exists nd', id', out'. split; [|exact C''].
        destruct C as (_ & Hh & _ & _ & Hfl & _).
        rewrite <- app_assoc. unfold s_vli_fuel. rewrite (vli_decode dig Hdig) by (rewrite N2Nat.id; apply N.size_gt).
        unfold s_dec_break. cbv zeta. change (N.of_nat (length out)) with (len out).
        rewrite N.mul_1_r, <- Hh, Hn, Hpos, Hm, Hfl. replace (id + d - id) with d by lia. exact E.
      + replace (c =? m) with false by lia. replace (c <? m) with false by lia.
        exact (IH _ _ _ _ bias _ _ _ _ rest Hm (coupled_gt _ _ _ _ _ _ _ _ _ _ Hc C)).
  Qed.

  Lemma outer_rt : forall fuel input b n d bias h nd id out,
    Forall (fun c => is_usvb c = true) input -> coupled n b [] input d h nd id out ->
    len input - h < N.of_nat fuel ->
    s_dec_loop dig (s_enc_outer fuel input (len input) b n d bias h) false id 1 s_base id nd bias out = Some input.
  Proof.
    induction fuel as [|f IH]; intros input b n d bias h nd id out Hu C Hf; [cbn in Hf; lia|].
    rewrite s_enc_outer_S. pose proof (coupled_cnt _ _ _ _ _ _ _ _ C) as Hcnt.
    destruct (h <? len input) eqn:E.
    - destruct (min_exists input n h Hcnt ltac:(lia)) as [m Em]. rewrite Em. cbv zeta.
      apply s_min_ge_some in Em. destruct Em as [Hin [Hle Hmin]].
      assert (Hm : is_usvb m = true) by (rewrite Forall_forall in Hu; exact (Hu m Hin)).
      destruct (s_enc_inner input m b (d + (m - n) * (h + 1)) bias h) as [[[d' bias'] h'] o'] eqn:Es.
      pose proof (inner_rt input [] m b (d + (m - n) * (h + 1)) bias h nd id out
                    (s_enc_outer f input (len input) b (m + 1) (d' + 1) bias' h') Hm
                    (coupled_min _ _ _ _ _ _ _ _ _ Hle Hmin C)) as HI.
      rewrite Es in HI. destruct HI as (nd' & id' & out' & E1 & C'). rewrite E1.
      apply s_inner_facts in Es. destruct Es as [Hh' _]. pose proof (cnt_eq_in input m Hin) as Hc.
      apply IH; [exact Hu|exact (coupled_next _ _ _ _ _ _ _ _ C')|].
      rewrite Nat2N.inj_succ in Hf. lia.
    - destruct C as (Hout & Hh & _). cbn [filter app] in Hout.
      assert (Ho : out = input).
      { rewrite Hout. apply filter_len_all. rewrite <- Hout, <- Hh. pose proof (cnt_le (fun c => c <? n) input). lia. }
      cbn [s_dec_loop]. rewrite Ho. reflexivity.
  Qed.
End RT.

Definition nodelim (l : list N) : Prop := Forall (fun c => c <> s_delimiter) l.

Lemma vli_nodelim fuel q k bias : nodelim (s_enc_vli fuel q k bias).
Proof. apply s_enc_vli_nodelim. Qed.

Lemma inner_nodelim l : forall n b d bias h,
  match s_enc_inner l n b d bias h with (_, _, _, o) => nodelim o end.
Proof.
  induction l as [|c l IH]; intros n b d bias h.
  - cbn [s_enc_inner]. constructor.
  - rewrite s_enc_inner_cons. cbv zeta. destruct (c =? n).
    + specialize (IH n b 0 (s_adapt (if c <? n then d + 1 else d) (h + 1) (h =? b)) (h + 1)).
      destruct (s_enc_inner l n b 0 (s_adapt (if c <? n then d + 1 else d) (h + 1) (h =? b)) (h + 1)) as [[[d' bi'] h'] o'].
      apply Forall_app. split; [apply vli_nodelim|exact IH].
    + apply IH.
Qed.

Lemma outer_nodelim fuel : forall input il b n d bias h, nodelim (s_enc_outer fuel input il b n d bias h).
Proof.
  induction fuel as [|f IH]; intros input il b n d bias h.
  - cbn [s_enc_outer]. destruct (h <? il); constructor.
  - rewrite s_enc_outer_S. destruct (h <? il); [|constructor]. cbv zeta.
    pose proof (inner_nodelim input (match s_min_ge n input with Some m => m | None => n end) b
                  (d + ((match s_min_ge n input with Some m => m | None => n end) - n) * (h + 1)) bias h) as HI.
    destruct (s_enc_inner input _ b _ bias h) as [[[d' bi'] h'] o'].
    apply Forall_app. split; [exact HI|apply IH].
Qed.

Lemma rpos_none D : nodelim D -> s_rposition D = None.
Proof.
  induction 1 as [|c D Hc _ IH]; [reflexivity|]. cbn [s_rposition]. rewrite IH.
  replace (c =? s_delimiter) with false by lia. reflexivity.
Qed.

Lemma rpos_app A : forall D, nodelim D -> s_rposition (A ++ s_delimiter :: D) = Some (length A).
Proof.
  induction A as [|a A IH]; intros D HD.
  - cbn [app s_rposition]. rewrite (rpos_none D HD). rewrite N.eqb_refl. reflexivity.
  - cbn [app s_rposition length]. rewrite (IH D HD). reflexivity.
Qed.

Lemma split_encoded A D : A <> [] -> nodelim D -> s_split (A ++ [s_delimiter] ++ D) = (A, D).
Proof.
  intros HA HD. unfold s_split. cbn [app]. rewrite rpos_app by exact HD.
  destruct A as [|a A]; [congruence|]. remember (a :: A) as B.
  replace (0 <? length B)%nat with true by (subst B; reflexivity).
  f_equal.
  - rewrite firstn_app, Nat.sub_diag, firstn_all. cbn [firstn]. apply app_nil_r.
  - rewrite skipn_app. rewrite skipn_all2 by lia.
    replace (Datatypes.S (length B) - length B)%nat with 1%nat by lia. reflexivity.
Qed.

Lemma forallb_filter p (l : list N) : forallb p (filter p l) = true.
Proof.
  induction l as [|c r IH]; [reflexivity|]. cbn [filter]. destruct (p c) eqn:E; [|exact IH].
  cbn [forallb]. rewrite E, IH. reflexivity.
Qed.

(* the encoder's output splits into the basic code points and the digits *)
Lemma split_s_encode s :
  s_split (s_encode s) =
  (filter (fun c => c <? 128) s,
   s_enc_outer (S (length s)) s (len s) (cnt (fun c => c <? 128) s) 128 0 72 (cnt (fun c => c <? 128) s)).
Proof.
  rewrite s_encode_unfold. remember (s_enc_outer _ _ _ _ _ _ _ _) as D.
  assert (HD : nodelim D) by (subst D; apply outer_nodelim).
  rewrite cnt_filter. destruct (filter (fun c => c <? 128) s) as [|a A] eqn:Ef.
  - rewrite len_nil. change (0 <? 0) with false. cbn [app]. unfold s_split. rewrite (rpos_none D HD). reflexivity.
  - rewrite len_cons. replace (0 <? len A + 1) with true by lia. apply split_encoded; [discriminate|exact HD].
Qed.

(* the two sides at the start: the basic code points are out, the decoder is at <128, 0> *)
Lemma coupled_init s :
  coupled 128 (cnt (fun c => c <? 128) s) [] s 0 (cnt (fun c => c <? 128) s) 128 0 (filter (fun c => c <? 128) s).
Proof. unfold coupled. cbn [filter app]. rewrite len_nil, !N.eqb_refl, cnt_filter. repeat split; lia. Qed.

Lemma usv_list_usvb s : usv_list s -> Forall (fun c => is_usvb c = true) s.
Proof. apply Forall_impl. intros c. apply is_usvb_spec. Qed.

Lemma outer_fuel s : len s - cnt (fun c => c <? 128) s < N.of_nat (S (length s)).
Proof. unfold len. lia. Qed.

Theorem s_round_trip s : usv_list s -> s_decode (s_encode s) = Some s.
Proof.
  intros Hu. unfold s_decode, s_decode_with. rewrite split_s_encode, forallb_filter.
  exact (outer_rt s_digit_value s_digit_value_char _ s _ _ _ _ _ _ _ _ (usv_list_usvb s Hu) (coupled_init s) (outer_fuel s)).
Qed.
