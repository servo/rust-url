(* Proofs/Idna_WalkDepr.v - the remaining public entry points of the idna crate: the deprecated Idna::to_ascii /
   to_unicode (deprecated.rs) and the lib.rs wrappers.  With AdapterNP + AdapterUSV:
     - Idna::to_ascii(domain, out) panics EXACTLY in the class of finding F-C04-13: debug assertions on,
       verify_dns_length configured, the processing wrote its output, and `out` is not ASCII;
     - domain_to_ascii, domain_to_ascii_strict never panic; Idna::to_unicode and domain_to_unicode do not panic outside
       Known_C11 (of the input they pass to process). *)
From RU Require Import Base.Prelude Base.Utf8 Base.Utf8Facts Base.U32_c13 Gen.Tables Model.Punycode Model.Uts46
  Proofs.Idna_Sim Proofs.Idna_Api Proofs.Idna_Known Proofs.Idna_Hyp Proofs.Idna_Redisc
  Proofs.Idna_C10_Deny Proofs.Idna_C10_Prefix Proofs.Idna_C10_Inner Proofs.Idna_C10_Walk Proofs.Idna_C10_Config
  Proofs.Idna_Mark Proofs.Idna_MarkWalk Proofs.Idna_MarkFffd Proofs.Idna_WalkFun Proofs.Idna_WalkInv Proofs.Idna_WalkApi
  Proofs.Idna_WalkNoPanic Proofs.Idna_WalkEnc Proofs.C04_Uts46_Api.

Lemma is_ascii_l_app a b : is_ascii_l (a ++ b) = is_ascii_l a && is_ascii_l b.
Proof. unfold is_ascii_l. apply forallb_app. Qed.
Lemma utf8_encode_app a b : utf8_encode (a ++ b) = utf8_encode a ++ utf8_encode b.
Proof. unfold utf8_encode. apply flat_map_app. Qed.
Lemma is_ascii_l_encode l : is_ascii_l (utf8_encode l) = is_ascii_l l.
Proof.
  destruct (is_ascii_l l) eqn:E.
  - apply is_ascii_l_spec in E. rewrite (utf8_encode_of_ascii l E). apply is_ascii_l_spec. exact E.
  - destruct (is_ascii_l (utf8_encode l)) eqn:E2; [|reflexivity].
    apply is_ascii_l_spec in E2. rewrite (utf8_encode_ascii_inv l E2) in E2. apply is_ascii_l_spec in E2. congruence.
Qed.

Section Depr.
Variable A : adapter.
Variable cfg : bool.
Hypothesis HN : C04_Uts46_Inner.AdapterNP A.
Hypothesis HU : AdapterUSV A.

Lemma mapped_bytes c domain : usv_list domain ->
  bytes (utf8_encode (map_transitional domain (transitional_processing c))).
Proof. intros H. apply utf8_encode_bytes. apply map_transitional_usv. exact H. Qed.

Theorem idna_to_ascii_panic_iff c domain out : usv_list domain ->
  (is_panic (idna_to_ascii A cfg c domain out) = true <->
   cfg = true /\ cfg_verify_dns_length c = true /\ is_ascii_l out = false /\
   exists s x, process A cfg true never_unicode (utf8_encode (map_transitional domain (transitional_processing c)))
                 (config_deny_list c) (config_hyphens c) None None false = (PWroteToSink, s, x)).
Proof.
  intros Hd. pose proof (mapped_bytes c domain Hd) as Hb.
  set (dd := utf8_encode (map_transitional domain (transitional_processing c))) in *.
  pose proof (process_no_panic A cfg HN true never_unicode dd (config_deny_list c) (config_hyphens c) false Hb
                (enc_ok_inner A cfg HU _ _ dd) ltac:(discriminate)) as HP.
  destruct (process A cfg true never_unicode dd (config_deny_list c) (config_hyphens c) None None false) as [[st s] x] eqn:Ep.
  cbn [fst] in HP.
  assert (Hw : st = PWroteToSink -> is_ascii_l (utf8_encode (out ++ s)) = is_ascii_l out).
  { intros ->. pose proof (to_ascii_wrote_ascii A cfg dd _ _ s x Hb Ep) as Hs.
    rewrite is_ascii_l_encode, is_ascii_l_app. apply is_ascii_l_spec in Hs. rewrite Hs. apply andb_true_r. }
  destruct st; cbn [status_fine] in HP; try contradiction.
  - (* Passthrough *)
    split; [|intros (_ & _ & _ & s' & x' & Hx); discriminate].
    intros H. exfalso. unfold idna_to_ascii in H. cbv zeta in H. fold dd in H. rewrite Ep in H.
    pose proof (passthrough_ascii_input A cfg true never_unicode dd _ _ None None false s x Hb Ep) as Ha.
    apply is_ascii_l_spec in Ha. unfold verify_dns_length_pub in H. rewrite Ha in H. cbn [negb] in H. rewrite andb_false_r in H.
    destruct (cfg_verify_dns_length c); [|discriminate]. destruct (verify_dns_length dd true); discriminate.
  - (* WroteToSink *)
    pose proof (idna_to_ascii_wrote A cfg c domain out s x Ep) as HI. rewrite (Hw eq_refl) in HI.
    split.
    + intros H. destruct (proj1 HI H) as (H1 & H2 & H3). repeat split; try assumption. exists s, x. reflexivity.
    + intros (H1 & H2 & H3 & _). apply HI. repeat split; assumption.
  - (* ValidityError *)
    split; [|intros (_ & _ & _ & s' & x' & Hx); discriminate].
    intros H. unfold idna_to_ascii in H. cbv zeta in H. fold dd in H. rewrite Ep in H. discriminate.
Qed.

Theorem idna_to_unicode_no_panic c domain out : usv_list domain ->
  Known_C11 A cfg (utf8_encode (map_transitional domain (transitional_processing c))) (config_deny_list c) (config_hyphens c) = false ->
  forall site, idna_to_unicode A cfg c domain out <> Panic site.
Proof.
  intros Hd HK site. pose proof (mapped_bytes c domain Hd) as Hb. unfold idna_to_unicode. cbv zeta.
  pose proof (process_no_panic A cfg HN false always_unicode _ (config_deny_list c) (config_hyphens c) false Hb
                (enc_ok_inner A cfg HU _ _ _) (fun _ => HK)) as HP.
  destruct (process A cfg false always_unicode (utf8_encode (map_transitional domain (transitional_processing c)))
              (config_deny_list c) (config_hyphens c) None None false) as [[st s] x].
  cbn [fst] in HP. destruct st; cbn [status_fine] in HP; try contradiction; discriminate.
Qed.

Theorem lib_wrappers_no_panic domain : usv_list domain ->
  (forall site, domain_to_ascii A cfg domain <> Panic site) /\
  (forall site, domain_to_ascii_strict A cfg domain <> Panic site) /\
  (Known_C11 A cfg (utf8_encode domain) DENY_EMPTY HAllow = false -> forall site, domain_to_unicode A cfg domain <> UIPanic site).
Proof.
  intros Hd. pose proof (utf8_encode_bytes domain Hd) as Hb. split; [|split].
  - intros site. unfold domain_to_ascii, domain_to_ascii_cow.
    pose proof (proj1 (uts46_no_panic A cfg (utf8_encode domain) DENY_EMPTY HAllow DIgnore never_unicode HN HU Hb)) as H.
    destruct (to_ascii A cfg (utf8_encode domain) DENY_EMPTY HAllow DIgnore) as [[b r]| |s]; try discriminate.
    intros E. inversion E. subst. exact (H site eq_refl).
  - intros site. unfold domain_to_ascii_strict.
    pose proof (proj1 (uts46_no_panic A cfg (utf8_encode domain) DENY_STD3 HCheck DVerify never_unicode HN HU Hb)) as H.
    destruct (to_ascii A cfg (utf8_encode domain) DENY_STD3 HCheck DVerify) as [[b r]| |s]; try discriminate.
    intros E. inversion E. subst. exact (H site eq_refl).
  - intros HK site. unfold domain_to_unicode, to_unicode.
    exact (proj2 (uts46_no_panic A cfg (utf8_encode domain) DENY_EMPTY HAllow DIgnore always_unicode HN HU Hb) HK site).
Qed.
End Depr.
