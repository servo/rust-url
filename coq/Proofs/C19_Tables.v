(* Proofs/C19_Tables.v - the regenerated MIME tables are the sets the standards name. *)
From RU Require Import Base.Prelude Gen.Tables Model.Mime.

(* RFC 7230 tchar = "!" / "#" / "$" / "%" / "&" / "'" / "*" / "+" / "-" / "." / "^" / "_" / "`" / "|" / "~"
   / DIGIT / ALPHA  (= the HTTP token code points of the MIME Sniffing Standard) *)
Definition TCHAR_PUNCT : list N := [33; 35; 36; 37; 38; 39; 42; 43; 45; 46; 94; 95; 96; 124; 126].
Definition rfc7230_tchar (c : N) : bool := is_alnum c || memb c TCHAR_PUNCT.

Lemma is_http_token_table_sweep :
  all_below 256 (fun b => match nth_error T_IS_HTTP_TOKEN (N.to_nat b) with
                          | Some f => Bool.eqb f (rfc7230_tchar b)
                          | None => false
                          end) = true.
Proof. vm_compute. reflexivity. Qed.

Lemma is_http_token_at_spec b : b < 256 -> is_http_token_at b = Ok (rfc7230_tchar b).
Proof.
  intros Hb. pose proof (all_below_spec _ _ is_http_token_table_sweep b Hb) as H. cbv beta in H.
  unfold is_http_token_at.
  destruct (nth_error T_IS_HTTP_TOKEN (N.to_nat b)) as [f|] eqn:E; [|discriminate H].
  apply Bool.eqb_prop in H. rewrite H. reflexivity.
Qed.

Lemma is_http_token_table_length : length T_IS_HTTP_TOKEN = 256%nat.
Proof. vm_compute. reflexivity. Qed.

Lemma tchar_ascii c : rfc7230_tchar c = true -> c < 128.
Proof.
  unfold rfc7230_tchar, is_alnum, is_alpha, is_upper, is_lower, is_digit, TCHAR_PUNCT. cbn [memb]. lia.
Qed.

Lemma http_whitespace_spec c : http_whitespace c = memb c [9; 10; 13; 32].
Proof. unfold http_whitespace, in_ranges, T_HTTP_WHITESPACE. cbn [existsb fst snd memb]. lia. Qed.

Lemma valid_value_char_spec c :
  valid_value_char c = ((c =? 9) || ((32 <=? c) && (c <=? 126)) || ((128 <=? c) && (c <=? 255))).
Proof. unfold valid_value_char, in_ranges, T_VALID_VALUE. cbn [existsb fst snd]. lia. Qed.

Lemma mime_escaped_spec c : memb c T_MIME_ESCAPED = ((c =? 34) || (c =? 92)).
Proof. unfold T_MIME_ESCAPED. cbn [memb]. lia. Qed.
