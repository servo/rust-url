(* Proofs/C17_Mime.v - the crate's MIME parser (Model/Mime.v, data-url/src/mime.rs) is the MIME Sniffing
   Standard's "parse a MIME type" (Spec/MimeSniff.v) on every string made of HTTP quoted-string token
   code points (TAB, 0x20-0x7E, 0x80-0xFF) - in particular on printable ASCII, which is all a data: URL
   header can hand to it.  (Outside that class the two differ: F-C19-2.)

   The crate splits at ';' first and works piece by piece; the Standard moves one position over the
   text.  `sl ps pieces` is the Standard's parameter loop started just past a ';' on the pieces joined
   with ';'; the main lemma (loop_equiv) says the crate's loop over the pieces computes it. *)
From RU Require Import Base.Prelude Base.Utf8Facts Model.Mime Spec.MimeSniff
  Proofs.C19_Tables Proofs.C19_Pure Proofs.C19_Normal.

Definition qs (c : N) : Prop := http_quoted_string_token_cp c = true.
Definition ne59 (c : N) : Prop := (c =? 59) = false.
Definition ne61 (c : N) : Prop := (c =? 61) = false.

(* the character classes of the crate and of the Standard agree *)
Lemma ws_same c : http_whitespace c = http_whitespace_cp c.
Proof. rewrite http_whitespace_spec. unfold http_whitespace_cp. cbn [memb]. lia. Qed.

Lemma tchar_same c : rfc7230_tchar c = http_token_cp c.
Proof.
  unfold rfc7230_tchar, http_token_cp, TCHAR_PUNCT. cbn [memb]. destruct (is_alnum c).
  - rewrite orb_true_r. reflexivity.
  - rewrite !orb_false_r. cbn [orb].
    repeat match goal with |- context [c =? ?k] => destruct (c =? k); cbn [orb]; try reflexivity end.
Qed.

Lemma qs_same c : valid_value_char c = http_quoted_string_token_cp c.
Proof. rewrite valid_value_char_spec. reflexivity. Qed.

Lemma forallb_ext' (f g : N -> bool) l : (forall c, f c = g c) -> forallb f l = forallb g l.
Proof. intros H. induction l as [|c l IH]; [reflexivity|]. cbn [forallb]. rewrite H, IH. reflexivity. Qed.

Lemma tokens_same s : tokens s = solely http_token_cp s.
Proof. apply forallb_ext'. exact tchar_same. Qed.

Lemma valid_value_same s : valid_value s = solely http_quoted_string_token_cp s.
Proof. apply forallb_ext'. exact qs_same. Qed.

Lemma tchar_lower c : rfc7230_tchar (to_lower c) = rfc7230_tchar c.
Proof.
  unfold to_lower. destruct (is_upper c) eqn:E; [|reflexivity]. revert E.
  unfold rfc7230_tchar, is_alnum, is_alpha, is_upper, is_lower, is_digit, TCHAR_PUNCT. cbn [memb]. lia.
Qed.

Lemma tokens_lower s : tokens (map to_lower s) = tokens s.
Proof.
  unfold tokens. induction s as [|c s IH]; [reflexivity|]. cbn [map forallb]. rewrite tchar_lower, IH. reflexivity.
Qed.

Lemma qs_valid s : Forall qs s -> valid_value s = true.
Proof.
  intros H. rewrite valid_value_same. apply forallb_forall. intros c Hc. rewrite Forall_forall in H. exact (H c Hc).
Qed.

Lemma qs_usv s : Forall qs s -> usv_list s.
Proof.
  intros H. unfold usv_list. rewrite Forall_forall in *. intros c Hc. specialize (H c Hc).
  unfold qs, http_quoted_string_token_cp in H. unfold is_usv. lia.
Qed.

Lemma trim_start_same s : trim_start s = strip_leading http_whitespace_cp s.
Proof. induction s as [|c s IH]; [reflexivity|]. cbn [trim_start strip_leading]. rewrite ws_same, IH. reflexivity. Qed.

Lemma trim_end_snoc s c : trim_end (s ++ [c]) = if http_whitespace c then trim_end s else s ++ [c].
Proof.
  induction s as [|x s IH].
  - cbn [app trim_end]. destruct (http_whitespace c); reflexivity.
  - cbn [app trim_end]. rewrite IH. destruct (http_whitespace c); [reflexivity|].
    destruct s; reflexivity.
Qed.

Lemma trim_end_same s : trim_end s = strip_trailing http_whitespace_cp s.
Proof.
  unfold strip_trailing. induction s as [|c s IH] using rev_ind; [reflexivity|].
  rewrite trim_end_snoc, rev_app_distr. cbn [rev app strip_leading]. rewrite <- ws_same.
  destruct (http_whitespace c); [exact IH|]. cbn [rev]. rewrite rev_involutive. reflexivity.
Qed.

Lemma trim_start_head s : match trim_start s with c :: _ => http_whitespace_cp c = false | [] => True end.
Proof.
  induction s as [|c s IH]; [exact I|]. cbn [trim_start]. destruct (http_whitespace c) eqn:E; [exact IH|].
  rewrite <- ws_same. exact E.
Qed.

Lemma trim_start_suffix s : exists p, s = p ++ trim_start s.
Proof.
  induction s as [|c s [p IH]]; [exists []; reflexivity|]. cbn [trim_start].
  destruct (http_whitespace c); [exists (c :: p); cbn [app]; f_equal; exact IH|exists []; reflexivity].
Qed.

Lemma split_once_collect sep s :
  collect (fun c => negb (c =? sep)) s
  = (fst (split_once sep s), match snd (split_once sep s) with None => [] | Some b => sep :: b end).
Proof.
  induction s as [|c s IH]; [reflexivity|]. cbn [collect split_once].
  destruct (c =? sep) eqn:E; cbn [negb].
  - apply N.eqb_eq in E. subst c. reflexivity.
  - rewrite IH. destruct (split_once sep s) as [a b]. reflexivity.
Qed.

Lemma split_once_shape sep s :
  Forall (fun c => (c =? sep) = false) (fst (split_once sep s))
  /\ s = fst (split_once sep s) ++ match snd (split_once sep s) with None => [] | Some b => sep :: b end.
Proof.
  induction s as [|c s IH]; [split; [constructor|reflexivity]|]. cbn [split_once].
  destruct (c =? sep) eqn:E.
  - apply N.eqb_eq in E. subst c. split; [constructor|reflexivity].
  - destruct (split_once sep s) as [a b]. cbn [fst snd] in *. destruct IH as [I1 I2].
    split; [constructor; assumption|]. cbn [app]. f_equal. exact I2.
Qed.

(* T rest: the pieces joined, each with a ';' in front *)
Definition T (rest : list (list N)) : list N := flat_map (cons 59) rest.

Lemma split_all_join s :
  s = fst (split_all 59 s) ++ T (snd (split_all 59 s))
  /\ Forall ne59 (fst (split_all 59 s)) /\ Forall (Forall ne59) (snd (split_all 59 s)).
Proof.
  induction s as [|c s IH]; [split; [reflexivity|split; constructor]|]. cbn [split_all].
  destruct (split_all 59 s) as [p ps]. cbn [fst snd] in *. destruct IH as (I1 & I2 & I3).
  destruct (c =? 59) eqn:E; cbn [fst snd].
  - apply N.eqb_eq in E. subst c. split; [|split; [constructor|constructor; assumption]].
    unfold T. cbn [flat_map app]. f_equal. exact I1.
  - split; [cbn [app]; f_equal; exact I1|]. split; [constructor; assumption|exact I3].
Qed.

(* the Standard's parameter loop over pieces: started in PSkipWs on the first piece followed by T of the others *)
Definition sl (ps : plist) (pieces : list (list N)) : plist :=
  match pieces with
  | [] => ps
  | p :: r => parameters_loop PSkipWs ps (p ++ T r)
  end.

Definition semi_state (st : pstate) : Prop :=
  match st with PQuoted _ _ | PQuotedEsc _ _ => False | _ => True end.

(* at the end of a piece: the end of the input, or a ';' with the same effect *)
Lemma semi st ps rest : semi_state st -> parameters_loop st ps (T rest) = sl (parameters_loop st ps []) rest.
Proof.
  intros Hs. destruct rest as [|r1 rs]; [reflexivity|].
  destruct st; try contradiction; reflexivity.
Qed.

Lemma run_skip ps piece x :
  parameters_loop PSkipWs ps (piece ++ x) = parameters_loop PSkipWs ps (trim_start piece ++ x).
Proof.
  induction piece as [|c r IH]; [reflexivity|]. cbn [trim_start]. rewrite ws_same.
  destruct (http_whitespace_cp c) eqn:E; [|reflexivity]. cbn [app parameters_loop]. rewrite E. exact IH.
Qed.

Lemma run_name ps x m : Forall ne59 m -> Forall ne61 m -> forall n,
  parameters_loop (PName n) ps (m ++ x) = parameters_loop (PName (rev m ++ n)) ps x.
Proof.
  induction m as [|c m IH]; intros H59 H61 n; [reflexivity|].
  inversion H59 as [|? ? A1 A2]; subst. inversion H61 as [|? ? B1 B2]; subst.
  cbn [app parameters_loop]. rewrite A1, B1. rewrite (IH A2 B2). cbn [rev]. rewrite <- app_assoc. reflexivity.
Qed.

Lemma run_afterq ps x nm v m : Forall ne59 m ->
  parameters_loop (PAfterQuoted nm v) ps (m ++ x) = parameters_loop (PAfterQuoted nm v) ps x.
Proof.
  induction m as [|c m IH]; intros H59; [reflexivity|]. inversion H59 as [|? ? A1 A2]; subst.
  cbn [app parameters_loop]. rewrite A1. exact (IH A2).
Qed.

Lemma run_unq ps x nm m : Forall ne59 m -> forall v,
  parameters_loop (PUnquoted nm v) ps (m ++ x) = parameters_loop (PUnquoted nm (rev m ++ v)) ps x.
Proof.
  induction m as [|c m IH]; intros H59 v; [reflexivity|]. inversion H59 as [|? ? A1 A2]; subst.
  cbn [app parameters_loop]. rewrite A1. rewrite (IH A2). cbn [rev]. rewrite <- app_assoc. reflexivity.
Qed.

(* one piece, up to the '=' *)
Lemma piece_step ps piece rest : Forall ne59 piece ->
  parameters_loop PSkipWs ps (piece ++ T rest) =
  match snd (split_once 61 (trim_start piece)) with
  | None => sl ps rest
  | Some v => parameters_loop (PValueStart (ascii_lowercase (fst (split_once 61 (trim_start piece))))) ps (v ++ T rest)
  end.
Proof.
  intros H59. rewrite run_skip.
  assert (Hq : Forall ne59 (trim_start piece)).
  { destruct (trim_start_suffix piece) as [p Hp]. rewrite Hp in H59. apply Forall_app in H59. tauto. }
  pose proof (trim_start_head piece) as Hh. pose proof (split_once_shape 61 (trim_start piece)) as [S1 S2].
  set (q := trim_start piece) in *. clearbody q.
  destruct (split_once 61 q) as [name value]. cbn [fst snd] in *.
  destruct value as [v|].
  - subst q. apply Forall_app in Hq. destruct Hq as [Hn Hv]. rewrite <- app_assoc. cbn [app].
    destruct name as [|c n'].
    + cbn [app parameters_loop]. reflexivity.
    + inversion Hn as [|? ? A1 A2]; subst. inversion S1 as [|? ? B1 B2]; subst.
      cbn [app parameters_loop]. cbn [app] in Hh. rewrite Hh, A1, B1.
      rewrite (run_name ps (61 :: v ++ T rest) n' A2 B2). cbn [parameters_loop].
      rewrite rev_app_distr, rev_involutive. reflexivity.
  - rewrite app_nil_r in S2. subst q.
    destruct name as [|c n'].
    + cbn [app]. exact (semi PSkipWs ps rest I).
    + inversion Hq as [|? ? A1 A2]; subst. inversion S1 as [|? ? B1 B2]; subst.
      cbn [app parameters_loop]. rewrite Hh, A1, B1.
      rewrite (run_name ps (T rest) n' A2 B2). exact (semi (PName _) ps rest I).
Qed.

Lemma T_cons p r : T (p :: r) = 59 :: p ++ T r.
Proof. reflexivity. Qed.

(* a quoted value: the crate's scanner over the pieces (scan_quoted) is the Standard's quoted-string
   collection.  Outer induction on the pieces still to come (a quoted value may run across ';', i.e. into
   the next piece), inner induction on the characters of the current piece two at a time, because a
   backslash consumes the character after it: the IH is needed at the tail and at the tail of the tail. *)
Lemma scan_equiv nm ps pieces : Forall (Forall ne59) pieces -> forall chars acc, Forall ne59 chars ->
  parameters_loop (PQuoted nm acc) ps (chars ++ T pieces)
  = sl (set_parameter ps nm (fst (scan_quoted pieces chars acc))) (snd (scan_quoted pieces chars acc)).
Proof.
  induction pieces as [|piece rest IHp]; intros Hp; [|inversion Hp as [|? ? Hp1 Hp2]; subst; specialize (IHp Hp2)];
    intros chars; induction chars as [|c|c c2 cs IH1 IH2] using list_ind_2step; intros acc Hc.
  (* two or more characters left in the piece: the same step whatever follows the piece *)
  3,6: rewrite scan_cons; inversion Hc as [|? ? A1 Hc']; subst; inversion Hc' as [|? ? A2 Hc'']; subst;
       cbn [app]; cbn [parameters_loop]; destruct (c =? 34) eqn:E34;
       [cbn [fst snd]; rewrite A2, run_afterq by exact Hc''; exact (semi (PAfterQuoted nm (rev acc)) ps _ I)|];
       destruct (c =? 92) eqn:E92; [cbn [parameters_loop]; exact (IH1 (c2 :: acc) Hc'')|exact (IH2 (c :: acc) Hc')].
  (* the last piece *)
  - rewrite scan_nil. reflexivity.
  - rewrite scan_cons. inversion Hc as [|? ? A1 _]; subst. cbn [app parameters_loop].
    destruct (c =? 34); [reflexivity|]. destruct (c =? 92); [reflexivity|]. rewrite scan_nil. reflexivity.
  (* the scan goes on into the next piece, behind the ';' *)
  - rewrite scan_nil. cbn [app]. rewrite T_cons. cbn [parameters_loop]. exact (IHp piece (59 :: acc) Hp1).
  - rewrite scan_cons. inversion Hc as [|? ? A1 _]; subst. cbn [app]. rewrite T_cons. cbn [parameters_loop].
    destruct (c =? 34) eqn:E34.
    { cbn [fst snd]. exact (semi (PAfterQuoted nm (rev acc)) ps (piece :: rest) I). }
    destruct (c =? 92) eqn:E92.
    { cbn [parameters_loop]. exact (IHp piece (59 :: acc) Hp1). }
    rewrite scan_nil. cbn [parameters_loop]. exact (IHp piece (59 :: c :: acc) Hp1).
Qed.

(* the value of a piece *)
Lemma value_unquoted ps nm v rest : Forall ne59 v -> strip_prefix_quote v = None ->
  parameters_loop (PValueStart nm) ps (v ++ T rest)
  = sl (if is_empty (trim_end v) then ps else set_parameter ps nm (trim_end v)) rest.
Proof.
  intros H59 Hq. destruct v as [|c v'].
  - cbn [app]. exact (semi (PValueStart nm) ps rest I).
  - inversion H59 as [|? ? A1 A2]; subst. cbn [strip_prefix_quote] in Hq.
    destruct (c =? 34) eqn:E34; [discriminate|]. cbn [app parameters_loop]. rewrite E34, A1.
    rewrite run_unq by exact A2. rewrite (semi (PUnquoted nm _) ps rest I). f_equal.
    cbn [parameters_loop]. unfold finish_unquoted. rewrite rev_app_distr, rev_involutive. cbn [rev app].
    rewrite <- trim_end_same. reflexivity.
Qed.

Lemma value_quoted ps nm v stripped rest : Forall ne59 v -> Forall (Forall ne59) rest ->
  strip_prefix_quote v = Some stripped ->
  parameters_loop (PValueStart nm) ps (v ++ T rest)
  = sl (set_parameter ps nm (fst (scan_quoted rest stripped []))) (snd (scan_quoted rest stripped [])).
Proof.
  intros H59 Hr Hq. destruct v as [|c v']; [discriminate|]. cbn [strip_prefix_quote] in Hq.
  destruct (c =? 34) eqn:E34; [|discriminate]. inversion Hq; subst. inversion H59 as [|? ? _ A2]; subst.
  cbn [app parameters_loop]. rewrite E34. exact (scan_equiv nm ps rest Hr stripped [] A2).
Qed.

(* the Standard's set_parameter is the crate's test (name valid and absent, value valid), given that the
   keys already stored are lower-case tokens *)
Definition keys_lower (ps : plist) : Prop := Forall (fun p => lower_token (fst p) = true) ps.

Lemma bytes_eq_ic_map a : forall b,
  bytes_eq_ignore_ascii_case a b = list_eqb (map to_lower a) (map to_lower b).
Proof.
  induction a as [|x a IH]; intros [|y b]; cbn [bytes_eq_ignore_ascii_case map list_eqb]; try reflexivity.
  rewrite IH. reflexivity.
Qed.

Lemma contains_exists_key ps name : keys_lower ps -> tokens name = true ->
  contains ps name = exists_key ps (map to_lower name).
Proof.
  intros Hk Ht. unfold contains, exists_key. induction ps as [|p ps IH]; [reflexivity|].
  inversion Hk as [|? ? K1 K2]; subst. cbn [existsb]. rewrite (IH K2). f_equal.
  unfold eq_ignore_ascii_case.
  rewrite (utf8_encode_ascii _ (tokens_ascii _ (lower_token_tokens _ K1))), (utf8_encode_ascii _ (tokens_ascii _ Ht)).
  rewrite bytes_eq_ic_map. change (map to_lower (fst p)) with (to_ascii_lowercase (fst p)).
  rewrite (lower_token_lowercase_id _ K1). reflexivity.
Qed.

Lemma set_parameter_crate ps name value : keys_lower ps ->
  set_parameter ps (ascii_lowercase name) value
  = if negb (p_name_valid ps name) || negb (valid_value value) then ps
    else ps ++ [(to_ascii_lowercase name, value)].
Proof.
  intros Hk. unfold set_parameter, p_name_valid, ascii_lowercase, to_ascii_lowercase.
  rewrite <- valid_value_same, <- tokens_same, tokens_lower.
  replace (is_empty_string (map to_lower name)) with (is_empty name) by (destruct name; reflexivity).
  destruct (tokens name) eqn:Et.
  - rewrite (contains_exists_key ps name Hk Et).
    destruct (is_empty name), (valid_value value), (exists_key ps (map to_lower name)); reflexivity.
  - destruct (is_empty name); reflexivity.
Qed.

Lemma keys_lower_push ps name value : keys_lower ps ->
  keys_lower (if negb (p_name_valid ps name) || negb (valid_value value) then ps
              else ps ++ [(to_ascii_lowercase name, value)]).
Proof.
  intros Hk. destruct (p_name_valid ps name) eqn:En; cbn [negb orb]; [|exact Hk].
  destruct (valid_value value); cbn [negb]; [|exact Hk].
  apply Forall_app. split; [exact Hk|]. constructor; [|constructor]. cbn [fst].
  unfold p_name_valid in En. apply andb_true_iff in En. destruct En as [En _]. apply andb_true_iff in En.
  destruct En as [E1 E2]. apply lower_token_of_tokens; [exact E2|]. destruct (is_empty name); [discriminate|reflexivity].
Qed.

(* The crate's loop over the pieces computes sl.  One piece is taken per unit of fuel; a quoted value may
   swallow further pieces, and scan_quoted returns a suffix of rest (scan_quoted_rest_length), so the
   fuel suffices for the recursive call.  Carried along: keys_lower ps (for set_parameter_crate) and that
   every piece is ';'-free and made of quoted-string token code points (so valid_value holds of each
   value, qs_valid).  piece_step does the name, value_quoted / value_unquoted the value. *)
Lemma loop_equiv fuel : forall pieces ps, (length pieces < fuel)%nat ->
  Forall (Forall ne59) pieces -> Forall (Forall qs) pieces -> keys_lower ps ->
  p_params_loop fuel pieces ps = Ok (sl ps pieces).
Proof.
  induction fuel as [|fuel IH]; intros pieces ps Hlen H59 Hqs Hk; [lia|].
  cbn [p_params_loop]. destruct pieces as [|piece rest]; [reflexivity|]. cbn [length] in Hlen.
  inversion H59 as [|? ? A1 A2]; subst. inversion Hqs as [|? ? Q1 Q2]; subst.
  unfold sl. rewrite (piece_step ps piece rest A1).
  assert (Hq59 : Forall ne59 (trim_start piece) /\ Forall qs (trim_start piece)).
  { destruct (trim_start_suffix piece) as [p Hp]. rewrite Hp in A1, Q1.
    apply Forall_app in A1. apply Forall_app in Q1. tauto. }
  destruct Hq59 as [B1 B2]. pose proof (split_once_shape 61 (trim_start piece)) as [_ S2].
  destruct (split_once 61 (trim_start piece)) as [name value]. cbn [fst snd] in *.
  destruct value as [v|]; [|apply IH; [lia|assumption..]].
  rewrite S2 in B1, B2. apply Forall_app in B1. apply Forall_app in B2.
  destruct B1 as [_ B1]. destruct B2 as [_ B2]. inversion B1 as [|? ? _ V1]; subst. inversion B2 as [|? ? _ V2]; subst.
  destruct (strip_prefix_quote v) as [stripped|] eqn:Es.
  - rewrite (value_quoted ps _ v stripped rest V1 A2 Es).
    pose proof (scan_quoted_rest_Forall (Forall ne59) rest stripped [] A2) as R1.
    pose proof (scan_quoted_rest_Forall (Forall qs) rest stripped [] Q2) as R2.
    pose proof (scan_quoted_rest_length rest stripped []) as R3.
    assert (Hval : Forall qs (fst (scan_quoted rest stripped []))).
    { destruct (scan_quoted_facts rest stripped []) as [w [k [E [HP _]]]]. rewrite E. cbn [fst rev app].
      apply HP; [reflexivity|reflexivity|exact Q2|].
      destruct v as [|c v']; [discriminate|]. cbn [strip_prefix_quote] in Es. destruct (c =? 34); [|discriminate].
      inversion Es; subst. inversion V2; assumption. }
    destruct (scan_quoted rest stripped []) as [val rest']. cbn [fst snd] in *.
    rewrite (set_parameter_crate ps name val Hk). rewrite (qs_valid v V2), (qs_valid val Hval).
    destruct (negb (p_name_valid ps name) || negb true) eqn:En.
    + apply IH; [lia|assumption..].
    + apply IH; [lia|assumption|assumption|].
      pose proof (keys_lower_push ps name val Hk) as Hk'. rewrite (qs_valid val Hval), En in Hk'. exact Hk'.
  - rewrite (value_unquoted ps _ v rest V1 Es).
    destruct (is_empty (trim_end v)); [apply IH; [lia|assumption..]|].
    rewrite (set_parameter_crate ps name (trim_end v) Hk).
    pose proof (keys_lower_push ps name (trim_end v) Hk) as Hk'.
    destruct (negb (p_name_valid ps name) || negb (valid_value (trim_end v))); apply IH; (lia || assumption).
Qed.

Lemma parse_parameters_equiv s : Forall qs s ->
  p_parse_parameters s [] = Ok (parameters_loop PSkipWs [] s).
Proof.
  intros Hq. unfold p_parse_parameters. pose proof (split_all_join s) as (J1 & J2 & J3).
  pose proof (split_all_Forall qs 59 s Hq) as [Q1 Q2].
  destruct (split_all 59 s) as [p pieces]. cbn [fst snd] in *.
  rewrite loop_equiv; [unfold sl; rewrite <- J1; reflexivity|cbn [length]; lia| | |constructor];
    constructor; assumption.
Qed.

Definition mime_of_record (r : mime_type) : mime := mk_mime (mt_type r) (mt_subtype r) (mt_parameters r).

Theorem p_parse_equiv t : Forall qs t -> p_parse t = Ok (option_map mime_of_record (parse_a_mime_type t)).
Proof.
  intros Hq. unfold p_parse, parse_a_mime_type, trim_matches.
  rewrite <- trim_start_same, <- trim_end_same.
  assert (Ht : Forall qs (trim_end (trim_start t))) by (apply trim_end_Forall, trim_start_Forall; exact Hq).
  set (tt := trim_end (trim_start t)) in *. clearbody tt.
  rewrite split_once_collect. pose proof (split_once_Forall qs 47 tt Ht) as [_ Hr].
  destruct (split_once 47 tt) as [type_ rest]. cbn [fst snd] in *.
  rewrite <- tokens_same.
  replace (is_empty_string type_) with (is_empty type_) by reflexivity.
  destruct (tokens type_), (is_empty type_); cbn [negb andb orb]; try reflexivity.
  destruct rest as [rest|]; [|reflexivity].
  rewrite split_once_collect. pose proof (split_once_Forall qs 59 rest Hr) as [_ Hr2].
  destruct (split_once 59 rest) as [subtype rest2]. cbn [fst snd] in *.
  rewrite <- trim_end_same, <- tokens_same.
  replace (is_empty_string (trim_end subtype)) with (is_empty (trim_end subtype)) by reflexivity.
  destruct (tokens (trim_end subtype)), (is_empty (trim_end subtype)); cbn [negb andb orb]; try reflexivity.
  destruct rest2 as [rest2|]; cbn [bind]; [|reflexivity].
  rewrite (parse_parameters_equiv rest2 Hr2). reflexivity.
Qed.

(* Mime.parse is the Standard's "parse a MIME type" on quoted-string token code points
   (Properties/C17.v: C17_mime_equiv) *)
Theorem mime_parse_equiv t : Forall qs t ->
  Mime.parse t = Ok (option_map mime_of_record (parse_a_mime_type t)).
Proof. intros Hq. rewrite (parse_spec t (qs_usv t Hq)). exact (p_parse_equiv t Hq). Qed.
