(* Proofs/C05_PathSpParse.v - "the path of a special-scheme URL contains no backslash" for every record parse_url returns.
   path_nb u := every byte of the stored path slice is not '\';   BS u := special scheme -> path_nb u.
   Base: well formed, AS (special => "://", Proofs/C05_AuthOfs.v) and BS.  Any input numbers, any override, no hypothesis on
   the host functions.  The arms: after "//" (a fresh path: C05_PathSp.parse_path_start_nb); relative references (the
   path of the base is kept, or popped and extended by the path state); the file states. *)
From RU Require Import Base.Prelude Base.Utf8 Model.AsciiSet Gen.Tables Model.PercentEncoding
  Model.HostT Model.UrlRecord Model.Parser Model.Setters Model.WF
  Proofs.ListN Proofs.C06_List Proofs.C02_Parts Proofs.C03_WF Proofs.C06_WFI Proofs.C06_Tail Proofs.C06_Steps
  Proofs.C06_Suffix Proofs.C06_PathParser Proofs.C06_FragQuery Proofs.C04_Parse Proofs.C04_PathTotal Proofs.C04_ParseTotal
  Proofs.C03_ReachParts Proofs.C03_Reach Proofs.C03_ReachFile
  Proofs.C05_Enc Proofs.C05_Parser Proofs.C05_Frag Proofs.C05_PathClean Proofs.C05_ParseUI Proofs.C05_ParseArms Proofs.C05_ParseAll
  Proofs.C05_BaseOk Proofs.C05_AuthOfs Proofs.C05_AuthParse Proofs.C05_HostText Proofs.C05_PathSp.

Definition path_nb (u : url) : Prop := forallb nb (piece u (path_start u) (path_end u)) = true.
Definition BS (u : url) : Prop := spb u = true -> path_nb u.

Lemma path_nb_path u p : wf_b u = true -> path_nb u -> path u = Some p -> ~ In 92 p.
Proof.
  intros W H Hp. rewrite (path_eval u W) in Hp. inversion Hp; subst p. apply nb_not_in. exact H.
Qed.

(* the query / fragment states behind a path *)
Lemma pqf_path ovr st se0 s rem s2 qs fs se ue hs he hi pt ps :
  parse_query_and_fragment ovr CUrlParser st se0 s rem = POk (s2, qs, fs) -> ps <= nlen s ->
  piece (mkUrl s2 se ue hs he hi pt ps qs fs) ps (path_end (mkUrl s2 se ue hs he hi pt ps qs fs)) = nskipn ps s.
Proof.
  intros H Lp. destruct (pqf_shape _ _ _ _ _ _ _ _ H) as (q & f & -> & -> & -> & _).
  assert (path_end (mkUrl (s ++ qf_text q f) se ue hs he hi pt ps (qf_qs (nlen s) q) (qf_fs (nlen s) q f)) = nlen s) as E.
  { unfold path_end. cbn [query_start fragment_start ser]. destruct q as [x|]; [reflexivity|].
    destruct f as [y|]; cbn [qf_qs qf_fs qf_qtext]; [rewrite nlen_nil; lia|].
    unfold qf_text. cbn [qf_qtext qf_ftext app]. rewrite app_nil_r. reflexivity. }
  rewrite E. unfold piece. cbn [ser]. rewrite nskipn_app_le by exact Lp.
  rewrite nfirstn_app_le by (rewrite nlen_nskipn; lia). apply nfirstn_all. rewrite nlen_nskipn. lia.
Qed.

(* with_query_and_fragment behind an authority *)
Lemma wqf_path ovr st se ue hs he hi pt ps s rem u :
  with_query_and_fragment ovr CUrlParser st se ue hs he hi pt ps s rem = POk u ->
  ps <= nlen s -> se + 3 <= ps -> starts_with s_css (nskipn se s) = true ->
  piece u (path_start u) (path_end u) = nskipn ps s.
Proof.
  intros H Lp L3 Hcss.
  destruct (with_query_and_fragment_steps ovr _ _ _ _ _ _ _ _ _ _ _ _ H) as (s1 & ps1 & s2 & qs & fs & F & Hb & ->).
  cbn [path_start]. destruct F as [|Eps _|Eps E3 _]; [exact (pqf_path ovr st se s rem s2 qs fs se ue hs he hi pt ps Hb Lp) | lia|].
  exfalso. apply list_eqb_spec in E3. replace (ps - se) with 3 in E3 by lia. rewrite (css_dot_false _ E3) in Hcss. discriminate.
Qed.

(* a record that keeps the serialization of the base up to the end of its path, with the same path bounds *)
Lemma keep_path b u : agree_pre (path_end b) (ser b) (ser u) -> path_start u = path_start b -> path_end u = path_end b ->
  path_nb b -> path_nb u.
Proof.
  intros Hpre E1 E2 H. unfold path_nb, piece in *. rewrite E1, E2.
  rewrite (pre_piece (path_end b) _ _ _ _ Hpre (N.le_refl _)). exact H.
Qed.

Lemma cut_fragment_nb b : wf_b b = true -> path_nb b -> path_nb (url_with b (b_before_fragment b) (query_start b) None).
Proof.
  intros W H. destruct (bf_path_end b W) as (A & B & C). apply (keep_path b); [exact A | reflexivity | | exact H].
  unfold path_end. cbn [url_with query_start fragment_start ser]. destruct (query_start b) as [q|] eqn:Eq; [reflexivity|].
  rewrite (C eq_refl). unfold path_end. rewrite Eq. reflexivity.
Qed.

Lemma fragment_only_nb b l u : wf_b b = true -> path_nb b -> fragment_only b l = POk u -> path_nb u.
Proof.
  intros W H. unfold fragment_only. cbv zeta. intros Hf. pb Hf fs Hfs. apply to_u32_eq in Hfs. subst fs.
  inversion Hf; subst u. destruct (bf_path_end b W) as (A & B & C).
  apply (keep_path b); [| reflexivity | | exact H].
  - cbn [ser]. rewrite parse_fragment_text, <- app_assoc.
    eapply agree_pre_trans; [exact A | apply agree_pre_app_le; exact B].
  - unfold path_end. cbn [query_start fragment_start ser]. destruct (query_start b) as [q|] eqn:Eq; [reflexivity|].
    rewrite (C eq_refl). unfold path_end. rewrite Eq. reflexivity.
Qed.

Lemma query_ref_nb ovr b st se0 l s qs fs : wf_b b = true -> path_nb b ->
  parse_query_and_fragment ovr CUrlParser st se0 (b_before_query b) l = POk (s, qs, fs) ->
  path_nb (url_with b s qs fs).
Proof.
  intros W H Hq. destruct (bq_shape b W) as (Ebq & P1 & P2).
  assert (path_start b <= nlen (b_before_query b)) as L by (rewrite Ebq, nlen_nfirstn by exact P2; exact P1).
  unfold path_nb, url_with. cbn [path_start].
  rewrite (pqf_path ovr st se0 (b_before_query b) l s qs fs _ _ _ _ _ _ (path_start b) Hq L).
  rewrite (bq_path b W). exact H.
Qed.

Section Arms.
Variable dbg : bool.
Variable hp hpo : list N -> result host.
Variable hd : host -> list N.
Variable ovr : option (list N -> list N).

Theorem ads_nb st se ser0 l u : st_is_special st = true -> nlen ser0 = se + 1 -> nnth ser0 se = Some 58 ->
  after_double_slash dbg hp hpo hd ovr CUrlParser st se ser0 l = POk u -> path_nb u.
Proof.
  intros Hsp L0 H58 H0.
  destruct (after_double_slash_steps dbg hp hpo hd ovr _ _ _ _ _ _ H0)
    as (ser1 & ue & rm & ser2 & he & hi & pt & rm2 & s3 & hh & rm3 & Ha & Hb & Hc & H).
  destruct (parse_userinfo_shape _ _ _ _ _ _ Ha) as (x & -> & _).
  destruct (phap_pre hp hpo hd _ _ _ _ _ _ _ _ _ _ Hb) as (t & ->).
  destruct (parse_path_start_nb dbg CUrlParser st true _ rm2 s3 hh rm3 Hsp Hc) as (P & -> & HP).
  unfold path_nb. rewrite (wqf_path _ _ _ _ _ _ _ _ _ _ _ _ H).
  - rewrite nskipn_app_exact. exact HP.
  - rewrite (nlen_app _ P). lia.
  - rewrite !nlen_app, L0. change (nlen [47; 47]) with 2. lia.
  - rewrite <- !app_assoc. rewrite (app_assoc ser0). apply css_after; assumption.
Qed.

(* a new path behind the front of the base *)
Lemma base_path_nb st b s rem u : wf_b b = true -> AO b -> agree_pre (path_start b) (ser b) s -> path_start b <= nlen s ->
  forallb nb (nskipn (path_start b) s) = true ->
  with_query_and_fragment ovr CUrlParser st (scheme_end b) (username_end b) (host_start b) (host_end b)
    (hosti b) (port b) (path_start b) s rem = POk u -> path_nb u.
Proof.
  intros W A Hpre Hl Hnb H. pose proof (wf_ao_auth b W A) as Ha. pose proof (wf_auth_facts b W Ha) as F.
  pose proof (af_ue F); pose proof (af_hs F); pose proof (af_he F); pose proof (af_ps F).
  unfold path_nb. rewrite (wqf_path _ _ _ _ _ _ _ _ _ _ _ _ H Hl); [exact Hnb | lia|].
  rewrite (pre_starts_with (path_start b) (ser b) s s_css (scheme_end b) Hpre) by (change (nlen s_css) with 3; lia).
  exact Ha.
Qed.

Lemma bq_pinvb b : wf_b b = true -> path_nb b ->
  PInvB (path_start b) (nfirstn (path_start b) (ser b)) (b_before_query b).
Proof.
  intros W H. destruct (bq_shape b W) as (Ebq & P1 & P2). split.
  - rewrite Ebq. apply nfirstn_nfirstn. exact P1.
  - rewrite (bq_path b W). exact H.
Qed.

Theorem parse_relative_nb st b l u : wf_b b = true -> AO b -> path_nb b -> st_is_special st = true -> st_is_file st = false ->
  nnth (ser b) (scheme_end b + 1) = Some 47 ->
  parse_relative dbg hp hpo hd ovr CUrlParser st b l = POk u -> path_nb u.
Proof.
  intros W A Hb Hsp Hnf Hs H.
  destruct (wf_scheme_facts b W) as (S1 & S2 & S3).
  pose proof (path_start_le_len b W) as PL.
  assert (nlen (nfirstn (path_start b) (ser b)) = path_start b) as La by (apply nlen_nfirstn; exact PL).
  set (P0 := nfirstn (path_start b) (ser b)) in *.
  (* a new path behind the front of the base *)
  assert (forall s rem, PInvB (path_start b) P0 s ->
            with_query_and_fragment ovr CUrlParser st (scheme_end b) (username_end b) (host_start b) (host_end b)
              (hosti b) (port b) (path_start b) s rem = POk u -> path_nb u) as Hnew.
  { intros s rem I Hw. pose proof (pathinv_len _ _ nb La _ I) as L2. destruct I as [J1 J2].
    apply (base_path_nb st b s rem u W A); [|exact L2|exact J2|exact Hw]. unfold agree_pre. rewrite J1. reflexivity. }
  destruct (parse_relative_case dbg hp hpo hd ovr CUrlParser st b l u H)
    as [-> | s qs fs Hq -> | Hf | x Ha | r s hh rem Hp Hw | s1 x s3 hh rem _ Hs1 Hp Hw].
  - exact (cut_fragment_nb b W Hb).
  - exact (query_ref_nb ovr b st _ l s qs fs W Hb Hq).
  - exact (fragment_only_nb b l u W Hb Hf).
  - apply (ads_nb st (scheme_end b) (nfirstn (scheme_end b + 1) (ser b)) x u Hsp); [apply nlen_nfirstn; lia | | exact Ha].
    rewrite nnth_nfirstn by lia. apply byte_eqb_nnth. exact S2.
  - apply (Hnew s rem); [|exact Hw]. apply (pinvb_parse_path dbg (path_start b) P0 CUrlParser st La Hsp _ _ _ _ _ _ Hp).
    apply (pathinv_app (path_start b) P0 nb La); [exact (pathinv_start (path_start b) P0 nb La) | reflexivity].
  - apply (Hnew s3 rem); [|exact Hw]. apply (pinvb_parse_path dbg (path_start b) P0 CUrlParser st La Hsp _ _ _ _ _ _ Hp).
    pose proof (pathinv_pop_path (path_start b) P0 nb La st _ _ Hs1 (bq_pinvb b W Hb)) as I1.
    destruct ((nlen s1 =? path_start b) && _); [|exact I1]. apply (pathinv_app (path_start b) P0 nb La); [exact I1 | reflexivity].
Qed.

Lemma file_tail_nb st s hs he hi rem s4 qs fs :
  parse_query_and_fragment ovr CUrlParser st 4 s rem = POk (s4, qs, fs) -> he <= nlen s ->
  forallb nb (nskipn he s) = true -> path_nb (file_url s4 hs he hi qs fs).
Proof.
  intros H L Hnb. unfold path_nb, file_url. cbn [path_start].
  rewrite (pqf_path ovr st 4 s rem s4 qs fs 4 hs hs he hi None he H L). exact Hnb.
Qed.

Lemma file_front_nb base_file ser1 he hi : file_front base_file ser1 he hi ->
  he <= nlen ser1 /\ forallb nb (nskipn he ser1) = true.
Proof.
  intros [|b seg _ _ Ew|b hs _ _].
  - split; [vm_compute; discriminate | reflexivity].
  - destruct (normalized_wdl_form seg Ew) as (a & -> & Ha). split; [vm_compute; discriminate|].
    replace 7 with (nlen s_file_css) by reflexivity. rewrite nskipn_app_exact. cbn [app forallb].
    rewrite (nb_alpha a Ha). reflexivity.
  - split; [lia|]. rewrite nskipn_all by lia. reflexivity.
Qed.

Theorem parse_file_nb st base_file l u :
  match base_file with Some b => wf_b b = true /\ AO b /\ path_nb b | None => True end ->
  parse_file dbg hp hd ovr CUrlParser st base_file l = POk u -> path_nb u.
Proof.
  intros Hb H.
  destruct (parse_file_case dbg hp hd ovr CUrlParser st base_file l u H)
    as [an ser1 flag hi remaining ser2 hh rem2 ser4 qs fs Ha Hb2 Hc
       | ser1 he hi ser2 hh rem ser3 qs fs F Hp Hq ->
       | b -> -> | b s qs fs -> Hq -> | b -> Hf | b s1 s2 hh rem -> Hs1 Hp Hw
       | s2 hh rem s3 qs fs Hp Hq ->].
  - (* "//" : file host *)
    destruct (pfh_pre hp hd _ _ _ _ _ _ Ha) as (t & ->).
    assert (exists P, ser2 = (s_file_css ++ t) ++ P /\ forallb nb P = true) as (P & -> & HP).
    { destruct flag.
      - exact (parse_path_start_nb dbg CUrlParser STFile _ _ _ _ _ _ eq_refl Hb2).
      - assert (PInvB (nlen (s_file_css ++ t)) (s_file_css ++ t) ((s_file_css ++ t) ++ [47])) as I1
          by (apply (pathinv_app _ _ nb eq_refl); [apply (pathinv_start _ _ nb eq_refl) | reflexivity]).
        exact (pathinv_split _ _ nb _ (pinvb_parse_path dbg _ _ CUrlParser STFile eq_refl eq_refl _ _ _ _ _ _ Hb2 I1)). }
    assert (7 <= nlen (s_file_css ++ t)) as L7 by (rewrite nlen_app; change (nlen s_file_css) with 7; lia).
    destruct Hc as [(_ & Hc & ->)|(_ & Hc & ->)].
    + assert (nlen (nfirstn 7 ((s_file_css ++ t) ++ P)) = 7) as L by (apply nlen_nfirstn; rewrite nlen_app; lia).
      apply (file_tail_nb st _ _ _ _ rem2 ser4 qs fs Hc).
      * rewrite nlen_app, L. lia.
      * rewrite <- L at 1. rewrite nskipn_app_exact, nskipn_app_exact. exact HP.
    + apply (file_tail_nb st _ _ _ _ rem2 ser4 qs fs Hc); [rewrite (nlen_app _ P); lia | rewrite nskipn_app_exact; exact HP].
  - (* a single slash *)
    destruct (file_front_nb base_file ser1 he hi F) as [Hle Hnb].
    assert (nlen (nfirstn he ser1) = he) as Lp by (apply nlen_nfirstn; exact Hle).
    assert (PInvB he (nfirstn he ser1) ser1) as I1 by (split; [reflexivity | exact Hnb]).
    pose proof (pinvb_parse_path dbg he _ CUrlParser STFile Lp eq_refl _ _ _ _ _ _ Hp I1) as I2.
    apply (file_tail_nb st ser2 _ _ _ rem ser3 qs fs Hq); [exact (pathinv_len he _ nb Lp _ I2) | exact (proj2 I2)].
  - destruct Hb as (Wb & Ab & Nb). exact (cut_fragment_nb b Wb Nb).
  - destruct Hb as (Wb & Ab & Nb). exact (query_ref_nb ovr b st _ l s qs fs Wb Nb Hq).
  - destruct Hb as (Wb & Ab & Nb). exact (fragment_only_nb b l u Wb Nb Hf).
  - destruct Hb as (Wb & Ab & Nb). pose proof (path_start_le_len b Wb) as PL.
    assert (nlen (nfirstn (path_start b) (ser b)) = path_start b) as Lp by (apply nlen_nfirstn; exact PL).
    pose proof (pathinv_shorten_path (path_start b) _ nb Lp STFile _ _ Hs1 (bq_pinvb b Wb Nb)) as I1.
    pose proof (pinvb_parse_path dbg (path_start b) _ CUrlParser STFile Lp eq_refl _ _ _ _ _ _ Hp I1) as I2.
    pose proof (pathinv_len _ _ nb Lp _ I2) as L2. destruct I2 as [J1 J2].
    apply (base_path_nb STFile b s2 rem u Wb Ab); [|exact L2|exact J2|exact Hw].
    unfold agree_pre. rewrite J1. reflexivity.
  - assert (PInvB 7 s_file_css (s_file_css ++ [47])) as I1.
    { apply (pathinv_app 7 s_file_css nb eq_refl); [exact (pathinv_start 7 s_file_css nb eq_refl) | reflexivity]. }
    pose proof (pinvb_parse_path dbg 7 s_file_css CUrlParser STFile eq_refl eq_refl _ _ _ _ _ _ Hp I1) as I2.
    apply (file_tail_nb STFile s2 _ _ _ rem s3 qs fs Hq); [exact (pathinv_len 7 s_file_css nb eq_refl _ I2) | exact (proj2 I2)].
Qed.

Theorem parse_url_bs base input u :
  match base with Some b => wf_b b = true /\ AS b /\ BS b | None => True end ->
  parse_url dbg hp hpo hd ovr base input = POk u -> BS u.
Proof.
  intros Hb H.
  destruct (parse_url_case dbg hp hpo hd ovr base input u H)
    as [b l -> Hf | bf l Hbf Hf | sch l0 l _ Est Ha | b l -> Ef Hc Hr | sch l _ Est Hn].
  - destruct Hb as (W & A & K). intros Hs. eapply (fragment_only_nb b); [exact W | | exact Hf]. apply K.
    unfold spb in *. rewrite <- (fragment_only_b_scheme b l u W Hf). exact Hs.
  - intros _. eapply parse_file_nb; [|exact Hf]. destruct bf as [b|]; [|exact I].
    destruct Hbf as [-> Eb]. destruct Hb as (W & A & K).
    assert (spb b = true) as Esb by (unfold spb; rewrite Eb; reflexivity).
    split; [exact W|]. split; [exact (A Esb) | exact (K Esb)].
  - intros _. apply (ads_nb STSpecialNotFile (nlen sch) (sch ++ [58]) l u eq_refl); [rewrite nlen_app; reflexivity | apply nnth_last | exact Ha].
  - destruct Hb as (W & A & K). intros Hs.
    assert (nnth (ser b) (scheme_end b + 1) = Some 47 /\ spb b = true) as [Eb Esb].
    { destruct Hc as [Hc|Hc].
      - assert (spb b = true) as Esb by (unfold spb; rewrite Hc; reflexivity). split; [exact (as_bk b W A Esb) | exact Esb].
      - rewrite (cannot_be_a_base_eval b W) in Hc. injection Hc as Hc. apply negb_false_iff, byte_eqb_nnth in Hc.
        split; [exact Hc|]. destruct (parse_relative_bk dbg hp hpo hd ovr _ b l u W Hc Ef Hr) as (K1 & K2 & _).
        unfold spb, b_scheme in *. rewrite K1, K2 in Hs. exact Hs. }
    exact (parse_relative_nb _ b l u W (A Esb) (K Esb) Esb Ef Eb Hr).
  - assert (nlen (sch ++ [58]) = nlen sch + 1) as L0 by (rewrite nlen_app; reflexivity).
    destruct (pns_bk dbg hp hpo hd ovr _ _ _ l u L0 Hn) as (K1 & K2). intros Hs. exfalso.
    unfold spb, b_scheme in Hs. rewrite K1, K2, nfirstn_app_exact, Est in Hs. discriminate.
Qed.

End Arms.
