(* Proofs/C05_ParseAll.v - the file states, the top level, and the component invariant CInv for EVERY parse
   result.
     parse_url_up   : up_ok (userinfo + path clauses) for every record parse_url returns - any input numbers,
                      any encoding override, any host functions; the base is base_ok (well-formed, and not
                      cannot-be-a-base if its scheme is special) and satisfies up_ok;
     parse_url_cinv : CInv for every record parse_url returns, from a base with CInv /\ base_ok, under the
                      host hypothesis HostWf of C03 (needed for wf_b, not for the clauses).
   That the result is again a possible base is Proofs/C05_BaseOk.v. *)
From RU Require Import Base.Prelude Base.Utf8 Model.AsciiSet Gen.Tables Model.PercentEncoding
  Model.HostT Model.UrlRecord Model.Parser Model.Setters Model.WF
  Proofs.ListN Proofs.C06_List Proofs.C02_Parts Proofs.C03_WF Proofs.C06_WFI Proofs.C06_Tail Proofs.C06_Steps
  Proofs.C06_Suffix Proofs.C06_PathParser Proofs.C06_FragQuery Proofs.C04_Parse Proofs.C04_PathTotal Proofs.C04_ParseTotal
  Proofs.C03_ReachParts Proofs.C03_Reach Proofs.C03_ReachFile
  Proofs.C05_Enc Proofs.C05_Parser Proofs.C05_Setters Proofs.C05_History Proofs.C05_Sharp Proofs.C05_Frag Proofs.C05_Query
  Proofs.C05_Comp Proofs.C05_PathClean Proofs.C05_CompSteps Proofs.C05_ParseUI Proofs.C05_ParseArms.

(* the query clause of a well-formed record, in the form the query chain uses *)
Lemma wf_query_okuQ (Q : list N -> Prop) dbg u :
  wf_b u = true -> (forall q, query dbg u = Some (Some q) -> Q q) -> query_okuQ Q u.
Proof.
  intros W Hq. unfold query_okuQ, query_okQ. destruct (query_start u) as [q|] eqn:Eq; [|exact I].
  pose proof (wf_qf_facts u W) as QF. pose proof (qf_q QF) as Q1. pose proof (qf_f QF) as Q2. pose proof (qf_qf QF) as Q3.
  rewrite Eq in Q1, Q3. destruct Q1 as (Q1a & Q1b & Q1c). apply byte_eqb_nnth in Q1b.
  set (e := match fragment_start u with Some f => f | None => nlen (ser u) end).
  assert (q + 1 <= e /\ e <= nlen (ser u)) as [He1 He2].
  { subst e. destruct (fragment_start u) as [f|]; lia. }
  set (tq := nfirstn (e - (q + 1)) (nskipn (q + 1) (ser u))).
  assert (nlen tq = e - (q + 1)) as Ltq by (subst tq; apply nlen_nfirstn; rewrite nlen_nskipn; lia).
  exists (nfirstn q (ser u)), tq, (nskipn (e - (q + 1)) (nskipn (q + 1) (ser u))).
  split; [|split; [symmetry; apply nlen_nfirstn; lia|split]].
  - cbn [app]. subst tq. rewrite nfirstn_nskipn. rewrite <- (nskipn_cons_of_nnth _ _ _ Q1b). symmetry. apply nfirstn_nskipn.
  - apply Hq. rewrite (query_eval dbg u W), Eq. unfold piece. cbn [pidx]. rewrite Eq. reflexivity.
  - rewrite (nlen_nfirstn q) by lia. destruct (fragment_start u) as [f|]; [subst e; lia|].
    apply nskipn_all. rewrite nlen_nskipn. subst e. lia.
Qed.

Lemma file_tail_up ovr st s he hi rem s4 qs fs :
  parse_query_and_fragment ovr CUrlParser st 4 s rem = POk (s4, qs, fs) ->
  he <= nlen s -> path_raw (nskipn he s) -> up_ok (file_url s4 7 he hi qs fs).
Proof.
  intros H L P. unfold file_url. apply (pqf_up ovr st 4 s rem s4 qs fs 4 7 7 he hi None he H L); [|exact P].
  intros t. apply ui_raw_trivial; lia.
Qed.

Lemma pq_split_raw s0 s' he : (exists P, s' = s0 ++ P /\ forallb pq P = true) -> he = nlen s0 ->
  he <= nlen s' /\ path_raw (nskipn he s').
Proof.
  intros (P & -> & HP) ->. split; [rewrite nlen_app; lia|]. rewrite nskipn_app_exact. apply path_raw_pq. exact HP.
Qed.

Lemma normalized_wdl_form seg : is_normalized_wdl seg = true -> exists a, seg = [a; 58] /\ is_alpha a = true.
Proof.
  intros Ew. unfold is_normalized_wdl, is_wdl, starts_with_wdl in Ew. destruct seg as [|a [|b [|c r]]]; try discriminate.
  apply andb_true_iff in Ew. destruct Ew as [Ew Eb]. apply N.eqb_eq in Eb. subst b.
  exists a. split; [reflexivity|]. cbn in Ew. rewrite andb_true_r in Ew. apply andb_true_iff in Ew. tauto.
Qed.

(* the front of a one-slash file reference starts with "file://", and what lies behind host_end is a drive letter
   at most *)
Lemma file_front_pq base_file ser1 he hi : file_front base_file ser1 he hi ->
  7 <= he /\ he <= nlen ser1 /\ nfirstn 7 ser1 = s_file_css /\ forallb pq (nskipn he ser1) = true.
Proof.
  intros [|b seg _ _ Ew|b hs _ _].
  - split; [lia|]. split; [vm_compute; discriminate | split; reflexivity].
  - destruct (normalized_wdl_form seg Ew) as (a & -> & Ha).
    split; [lia|]. split; [vm_compute; discriminate|]. split; [apply file_css_pre|].
    replace 7 with (nlen s_file_css) by reflexivity. rewrite nskipn_app_exact. cbn [app forallb].
    rewrite (pq_alpha a Ha). reflexivity.
  - split; [rewrite nlen_app; change (nlen s_file_css) with 7; lia|]. split; [lia|]. split; [apply file_css_pre|].
    rewrite nskipn_all by lia. reflexivity.
Qed.

Section All.
Variable dbg : bool.
Variable hp hpo : list N -> result host.
Variable hd : host -> list N.
Variable ovr : option (list N -> list N).

Lemma pfh_pre ser l ser1 flag hi rem : parse_file_host hp hd ser l = POk (ser1, flag, hi, rem) -> exists t, ser1 = ser ++ t.
Proof.
  unfold parse_file_host. destruct (file_host l) as [t rm].
  destruct t as [|c t']; [intros H; inversion H; subst; exists []; rewrite app_nil_r; reflexivity|].
  intros H. pb H h Hh.
  assert (POk (ser ++ hd h, true, hi_of_host h, rm) = POk (ser1, flag, hi, rem) -> exists t, ser1 = ser ++ t) as Hgen.
  { intros X. inversion X; subst. eexists. reflexivity. }
  destruct h as [d|a|p]; [|exact (Hgen H)|exact (Hgen H)].
  destruct (list_eqb d s_localhost); [|exact (Hgen H)].
  inversion H; subst. exists []. rewrite app_nil_r. reflexivity.
Qed.

Definition base_up (b : url) : Prop :=
  wf_b b = true /\ up_ok b /\ nnth (ser b) (scheme_end b + 1) = Some 47.

Theorem parse_file_up st base_file l u :
  match base_file with Some b => base_up b | None => True end ->
  parse_file dbg hp hd ovr CUrlParser st base_file l = POk u -> up_ok u.
Proof.
  intros Hb H.
  destruct (parse_file_case dbg hp hd ovr CUrlParser st base_file l u H)
    as [an ser1 flag hi remaining ser2 hh rem2 ser4 qs fs Ha Hb2 Hc
       | ser1 he hi ser2 hh rem ser3 qs fs F Hp Hq ->
       | b -> -> | b s qs fs -> Hq -> | b -> Hf | b s1 s2 hh rem -> Hs1 Hp Hw
       | s2 hh rem s3 qs fs Hp Hq ->].
  - (* "//" : file host *)
    destruct (pfh_pre _ _ _ _ _ _ Ha) as (t & ->).
    assert (exists P, ser2 = (s_file_css ++ t) ++ P /\ forallb pq P = true) as HP.
    { destruct flag.
      - exact (parse_path_start_clean dbg CUrlParser STFile _ _ _ _ _ _ Hb2).
      - apply pinvq_split.
        assert (PInvQ (nlen (s_file_css ++ t)) (s_file_css ++ t) ((s_file_css ++ t) ++ [47])) as I1
          by (apply pinvq_app; [reflexivity | apply pinvq_start | reflexivity]).
        exact (pinvq_parse_path dbg _ _ eq_refl _ _ _ _ _ _ _ _ Hb2 I1). }
    destruct (pq_split_raw _ _ _ HP eq_refl) as [L2 P2].
    destruct Hc as [(_ & Hc & ->)|(_ & Hc & ->)].
    + apply (file_tail_up ovr st _ 7 HI_None rem2 ser4 qs fs Hc).
      * rewrite nlen_app. rewrite nlen_nfirstn by (rewrite nlen_app in L2; change (nlen s_file_css) with 7 in L2; lia). lia.
      * assert (nlen (nfirstn 7 ser2) = 7) as L7
          by (apply nlen_nfirstn; rewrite nlen_app in L2; change (nlen s_file_css) with 7 in L2; lia).
        rewrite <- L7 at 1. rewrite nskipn_app_exact. exact P2.
    + exact (file_tail_up ovr st _ _ hi rem2 ser4 qs fs Hc L2 P2).
  - (* a single slash *)
    destruct (file_front_pq base_file ser1 he hi F) as (_ & Hle & _ & Hpq).
    assert (nlen (nfirstn he ser1) = he) as Lp by (apply nlen_nfirstn; exact Hle).
    assert (PInvQ he (nfirstn he ser1) ser1) as I1 by (split; [reflexivity | exact Hpq]).
    pose proof (pinvq_parse_path dbg he _ Lp _ _ _ _ _ _ _ _ Hp I1) as I2.
    apply (file_tail_up ovr st ser2 he hi rem ser3 qs fs Hq); [exact (pinvq_len he _ Lp ser2 I2) | exact (pinvq_raw _ _ _ I2)].
  - destruct Hb as (Wb & Ub & Sb). apply cut_fragment_up; assumption.
  - destruct Hb as (Wb & Ub & Sb). eapply query_ref_up; eassumption.
  - destruct Hb as (Wb & Ub & Sb). exact (fragment_only_up b l u Wb Ub Hf).
  - destruct Hb as (Wb & Ub & Sb). pose proof (path_start_le_len b Wb) as PL.
    assert (nlen (nfirstn (path_start b) (ser b)) = path_start b) as Lp by (apply nlen_nfirstn; exact PL).
    pose proof (pathinv_shorten_path _ _ pq Lp _ _ _ Hs1 (bq_pinvq b Wb Ub Sb)) as I1.
    pose proof (pinvq_parse_path dbg _ _ Lp _ _ _ _ _ _ _ _ Hp I1) as I2.
    eapply base_path_up; eassumption.
  - assert (PInvQ 7 s_file_css (s_file_css ++ [47])) as I1.
    { apply pinvq_app; [reflexivity | exact (pinvq_start s_file_css) | reflexivity]. }
    pose proof (pinvq_parse_path dbg 7 s_file_css eq_refl _ _ _ _ _ _ _ _ Hp I1) as I2.
    apply (file_tail_up ovr STFile s2 7 HI_None rem s3 qs fs Hq); [exact (pinvq_len 7 s_file_css eq_refl s2 I2) | exact (pinvq_raw _ _ _ I2)].
Qed.

Definition base_c (b : url) : Prop := base_ok b = true /\ up_ok b.

Lemma base_c_wf b : base_c b -> wf_b b = true.
Proof. intros [H _]. unfold base_ok in H. apply andb_true_iff in H. tauto. Qed.

Lemma base_c_up b : base_c b -> st_is_special (scheme_type_of (b_scheme b)) = true -> base_up b.
Proof.
  intros [H U] Hs. unfold base_ok in H. apply andb_true_iff in H. destruct H as [W H]. rewrite Hs in H. cbn [negb orb] in H.
  split; [exact W|]. split; [exact U | apply byte_eqb_nnth; exact H].
Qed.

Theorem parse_url_up base input u :
  match base with Some b => base_c b | None => True end ->
  parse_url dbg hp hpo hd ovr base input = POk u -> up_ok u.
Proof.
  intros Hb H.
  destruct (parse_url_case dbg hp hpo hd ovr base input u H)
    as [b l -> Hf | bf l Hbf Hf | sch l0 l _ _ Ha | b l -> Ef Hc Hr | sch l _ _ Hn].
  - exact (fragment_only_up b l u (base_c_wf b Hb) (proj2 Hb) Hf).
  - eapply parse_file_up; [|exact Hf]. destruct bf as [b|]; [|exact I]. destruct Hbf as [-> Eb].
    apply base_c_up; [exact Hb | rewrite Eb; reflexivity].
  - apply (ads_up dbg hp hpo hd ovr STSpecialNotFile (nlen sch) (sch ++ [58]) l u); [rewrite nlen_app; reflexivity | apply nnth_last | exact Ha].
  - pose proof (base_c_wf b Hb) as W. apply (parse_relative_up dbg hp hpo hd ovr (scheme_type_of (b_scheme b)) b l u W (proj2 Hb)); [|exact Hr].
    destruct Hc as [Hc|Hc]; [apply (base_c_up b Hb); rewrite Hc; reflexivity|].
    rewrite (cannot_be_a_base_eval b W) in Hc. injection Hc as Hc. apply negb_false_iff, byte_eqb_nnth in Hc. exact Hc.
  - apply (parse_non_special_up dbg hp hpo hd ovr STNotSpecial (nlen sch) (sch ++ [58]) l u); [rewrite nlen_app; reflexivity | apply nnth_last | exact Hn].
Qed.

End All.

(* CInv for every parse result *)
Theorem parse_url_cinv dbg dbg' hp hpo hd ovr base input u : HostWf hp hpo hd ->
  match base with Some b => CInv dbg' b /\ base_ok b = true | None => True end ->
  parse_url dbg hp hpo hd ovr base input = POk u -> CInv dbg' u.
Proof.
  intros HW Hb Hp.
  assert (wf_b u = true /\ host_text_ok u) as [W HT].
  { apply (parse_url_wf_all dbg hp hpo hd ovr HW base input u); [|exact Hp].
    destruct base as [b|]; [|exact I]. destruct Hb as [[[Wb Tb] _] Bb]. split; assumption. }
  split; [split; assumption|].
  apply (up_comp dbg' u W).
  - apply (parse_url_up dbg hp hpo hd ovr base input u); [|exact Hp].
    destruct base as [b|]; [|exact I]. destruct Hb as [[[Wb Tb] Cb] Bb]. split; [exact Bb | exact (comp_up dbg' b Wb Cb)].
  - intros q Hq. apply (query_okuQ_query (free D_QUERY) dbg' u q); [|exact Hq].
    apply (parse_url_queryQ _ (free_nil _) (free_app _) (fun st xs => comp_clean_free _ _ (query_piece_clean st xs))
             dbg hp hpo hd ovr base input u); [|exact Hp].
    destruct base as [b|]; [|exact I]. destruct Hb as [[[Wb Tb] (_ & _ & _ & Qb & _)] Bb]. exact (wf_query_okuQ _ dbg' b Wb Qb).
  - intros f Hf. apply comp_clean_free.
    exact (frag_oku_fragment dbg' u f (parse_url_frag dbg hp hpo hd ovr base input u Hp) Hf).
Qed.
