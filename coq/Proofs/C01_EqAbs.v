(* Proofs/C01_EqAbs.v - a reference that carries its own scheme, when a base is given: for a non-special
   scheme, and for a special non-file scheme other than the scheme of the base, neither side consults the
   base - the Standard's scheme state goes to the path or authority / opaque path / special authority
   slashes state exactly as without base, parser.rs calls parse_non_special / after_double_slash.  So the
   outcome is the outcome without base on both sides, and the no-base classes carry over. *)
From RU Require Import Base.Prelude Model.UrlRecord Model.Parser Model.Setters Spec.Whatwg Proofs.C01_Tables
  Proofs.C01_EqRun Proofs.C01_EqEnc Proofs.C01_EqRef Proofs.C01_EqPathSpec Proofs.C01_EqClasses
  Proofs.C01_EqAuthSpec Proofs.C01_EqSpSpec Proofs.C01_EqSp.

(* the outcome of the Standard's parser is BDone su (X = Some su) or a failure (X = None) *)
Definition outcome_is (r : parse_outcome) (X : option spec_url) : Prop :=
  match X with
  | Some su => r = BDone su
  | None => exists uf, r = BFailure uf
  end.

(* same result, or failure on both sides (the record a failure carries is not compared) *)
Definition outcome_eq (r1 r2 : parse_outcome) : Prop :=
  match r1, r2 with
  | BDone a, BDone b => a = b
  | BFailure _, BFailure _ => True
  | _, _ => False
  end.

Lemma outcome_is_eq r1 r2 X : outcome_is r1 X -> outcome_is r2 X -> outcome_eq r1 r2.
Proof.
  destruct X as [su|]; cbn [outcome_is].
  - intros -> ->. reflexivity.
  - intros [u1 ->] [u2 ->]. exact I.
Qed.

(* the Standard's side *)
Section SpecAbs.
Variable shp : bool -> list N -> option spec_host.

(* non-special scheme: what the parser returns is a function of (scheme, text after ':') alone *)
Definition nonspecial_result (sch R : list N) : option spec_url :=
  match R with
  | 47 :: 47 :: T => sauth shp sch T
  | 47 :: r => Some (tail_url (set_path (set_scheme empty_url sch) (SPList (fst (spath r [] [])))) (snd (spath r [] [])))
  | _ => Some (tail_url (set_path (set_path (set_scheme empty_url sch) (SPOpaque []))
                                  (SPOpaque ([] ++ upe in_c0_control_set (o_path R)))) (o_rest R))
  end.

Theorem spec_nonspecial_any base input sch R :
  spec_scheme (spec_clean input) = Some (sch, R) -> is_special_scheme sch = false ->
  outcome_is (spec_basic_url_parse shp input base) (nonspecial_result sch R).
Proof.
  intros Hs Hnsp. set (inp := spec_clean input) in *.
  assert (list_eqb sch str_file = false) as Hnf.
  { destruct (list_eqb sch str_file) eqn:E; [|reflexivity]. apply list_eqb_spec in E. subst sch. discriminate Hnsp. }
  assert (forall res, (forall pre, inp = pre ++ 58 :: R -> Runs shp inp base (at_pos StScheme pre sch false false false empty_url) res) ->
                      spec_basic_url_parse shp input base = res) as Hrun.
  { intros res HR. apply spec_parse_of_runs. fold inp.
    destruct (runs_scheme shp inp base sch R res Hs) as (pre & Hin & K). apply K. exact (HR pre Hin). }
  destruct (starts_with_cp 47 R) eqn:H47.
  - destruct R as [|c1 R1]; [discriminate H47|]. cbn [starts_with_cp] in H47. apply N.eqb_eq in H47. subst c1.
    destruct (starts_with_cp 47 R1) eqn:H47'.
    + (* "//": authority state *)
      destruct R1 as [|c2 T]; [discriminate H47'|]. cbn [starts_with_cp] in H47'. apply N.eqb_eq in H47'. subst c2.
      change (nonspecial_result sch (47 :: 47 :: T)) with (sauth shp sch T).
      assert (forall res pre, inp = pre ++ 58 :: 47 :: 47 :: T ->
                Runs shp inp base (at_pos StAuthority (pre ++ [58; 47; 47]) [] false false false (set_scheme empty_url sch)) res ->
                Runs shp inp base (at_pos StScheme pre sch false false false empty_url) res) as Hstep.
      { intros res pre Hin HR.
        apply (runs_scheme_colon_slash shp inp base pre sch (47 :: T) res Hin Hnsp).
        assert (inp = (pre ++ [58; 47]) ++ 47 :: T) as Hin2 by (rewrite Hin; repeat rewrite <- app_assoc; reflexivity).
        apply (runs_poa_slash shp inp base (pre ++ [58; 47]) T false false false _ res Hin2).
        rewrite <- app_assoc. exact HR. }
      assert (forall pre, inp = pre ++ 58 :: 47 :: 47 :: T -> inp = (pre ++ [58; 47; 47]) ++ T) as Hin3
        by (intros pre ->; repeat rewrite <- app_assoc; reflexivity).
      destruct (sauth shp sch T) as [su|] eqn:Esa; cbn [outcome_is].
      * apply Hrun. intros pre Hin. apply (Hstep _ pre Hin).
        pose proof (runs_authority shp inp base _ T sch (Hin3 pre Hin) Hnsp) as RA. rewrite Esa in RA. exact RA.
      * destruct (runs_scheme shp inp base sch (47 :: 47 :: T) BOutOfFuel Hs) as (pre & Hin & _).
        pose proof (runs_authority shp inp base _ T sch (Hin3 pre Hin) Hnsp) as RA. rewrite Esa in RA.
        destruct RA as [uf RA]. exists uf. apply Hrun. intros pre' Hin'.
        assert (pre' = pre) as -> by (rewrite Hin in Hin'; apply app_inv_tail in Hin'; symmetry; exact Hin').
        apply (Hstep _ pre Hin). exact RA.
    + (* "/x": path state *)
      assert (nonspecial_result sch (47 :: R1)
              = Some (tail_url (set_path (set_scheme empty_url sch) (SPList (fst (spath R1 [] [])))) (snd (spath R1 [] [])))) as ->.
      { destruct R1 as [|c2 T]; [reflexivity|]. cbn [starts_with_cp] in H47'. unfold nonspecial_result.
        destruct c2 as [|p]; [reflexivity|]. do 6 (destruct p as [p|p|]; try reflexivity). discriminate H47'. }
      cbn [outcome_is]. apply Hrun. intros pre Hin.
      apply (runs_scheme_colon_slash shp inp base pre sch R1 _ Hin Hnsp).
      assert (inp = (pre ++ [58; 47]) ++ R1) as Hin2 by (rewrite Hin, <- app_assoc; reflexivity).
      apply (runs_path_or_authority shp inp base (pre ++ [58; 47]) R1 false false false _ _ Hin2 H47').
      apply (runs_path shp inp base R1 (pre ++ [58; 47]) [] false false false (set_scheme empty_url sch) [] Hin2 eq_refl);
        [unfold is_special; cbn [su_scheme set_scheme empty_url]; exact Hnsp | exact Hnf].
  - (* opaque path *)
    assert (nonspecial_result sch R
            = Some (tail_url (set_path (set_path (set_scheme empty_url sch) (SPOpaque []))
                                       (SPOpaque ([] ++ upe in_c0_control_set (o_path R)))) (o_rest R))) as ->.
    { destruct R as [|c1 R1]; [reflexivity|]. cbn [starts_with_cp] in H47. unfold nonspecial_result.
      destruct c1 as [|p]; [reflexivity|]. do 6 (destruct p as [p|p|]; try reflexivity). discriminate H47. }
    cbn [outcome_is]. apply Hrun. intros pre Hin.
    apply (runs_scheme_colon_opaque shp inp base pre sch R _ Hin Hnsp H47).
    exact (runs_opaque_path shp inp base R (pre ++ [58]) false false false
             (set_path (set_scheme empty_url sch) (SPOpaque [])) [] (snoc_split _ _ _ _ Hin) eq_refl).
Qed.

(* the scheme of the reference, compared with the base as the Standard's scheme state does *)
Definition base_ignored (sbase : option spec_url) (sch : list N) : bool :=
  negb (list_eqb sch str_file)
  && (negb (is_special_scheme sch)
      || match sbase with Some sb => negb (list_eqb (su_scheme sb) sch) | None => true end).

Theorem spec_base_ignored sbase input sch R :
  spec_scheme (spec_clean input) = Some (sch, R) -> base_ignored sbase sch = true ->
  outcome_eq (spec_basic_url_parse shp input sbase) (spec_basic_url_parse shp input None).
Proof.
  intros Hs Hb. unfold base_ignored in Hb. apply andb_true_iff in Hb. destruct Hb as [Hnf Hb]. apply negb_true_iff in Hnf.
  destruct (is_special_scheme sch) eqn:Hsp.
  - cbn [negb orb] in Hb.
    assert (match sbase with Some b => list_eqb (su_scheme b) sch | None => false end = false) as Hb'.
    { destruct sbase as [sb|]; [apply negb_true_iff in Hb; exact Hb | reflexivity]. }
    apply (outcome_is_eq _ _ (sauth_s shp sch (drop_sl R))).
    + pose proof (spec_special_any shp sbase input sch R Hs Hsp Hnf Hb') as K.
      destruct (sauth_s shp sch (drop_sl R)); exact K.
    + pose proof (spec_special shp input sch R Hs Hsp Hnf) as K.
      destruct (sauth_s shp sch (drop_sl R)); exact K.
  - exact (outcome_is_eq _ _ _ (spec_nonspecial_any sbase input sch R Hs Hsp) (spec_nonspecial_any None input sch R Hs Hsp)).
Qed.

End SpecAbs.

(* the model's side *)
Lemma file_type sch : scheme_type_of sch = STFile -> list_eqb sch str_file = true.
Proof.
  unfold scheme_type_of.
  destruct (list_eqb sch s_http || list_eqb sch s_https || list_eqb sch s_ws || list_eqb sch s_wss || list_eqb sch s_ftp);
    [discriminate|]. change s_file with str_file. destruct (list_eqb sch str_file); [reflexivity | discriminate].
Qed.

Theorem model_base_ignored dbg hp hpo hd ovr b sb shs input sch R :
  related dbg shs b sb ->
  spec_scheme (spec_clean input) = Some (sch, R) -> base_ignored (Some sb) sch = true ->
  parse_url dbg hp hpo hd ovr (Some b) input = parse_url dbg hp hpo hd ovr None input.
Proof.
  intros Rl Hs Hb. unfold base_ignored in Hb. apply andb_true_iff in Hb. destruct Hb as [Hnf Hb]. apply negb_true_iff in Hnf.
  rewrite spec_clean_is_ntnl_trim in Hs. destruct (spec_scheme_model _ _ _ Hs) as (rem & Hps & _).
  unfold parse_url. rewrite Hps. unfold parse_with_scheme.
  destruct (scheme_type_of sch) eqn:Est.
  - rewrite (file_type sch Est) in Hnf. discriminate Hnf.
  - destruct (inp_count_matching is_slash_or_bslash rem) as [sl rm].
    assert (is_special_scheme sch = true) as Hsp by (rewrite <- special_schemes_are_the_standards, Est; reflexivity).
    rewrite Hsp in Hb. cbn [negb orb] in Hb. apply negb_true_iff in Hb.
    rewrite (rel_sch _ _ _ _ Rl), Hb, andb_false_r. reflexivity.
  - reflexivity.
Qed.
