(* Proofs/C02_PathSetter.v - L1 for the path state in the SETTER context (Url::set_path): '?' and '#' do not end the
   path there, they are pending characters and come out percent-encoded.  The setter-context loop on an input l is
   the URL-parser-context loop on l with every '?' replaced by "%3F" and every '#' by "%23" (the PATH set encodes
   both and keeps '%', digits and letters), so the canonical-form lemmas of C02_PathL1 / C02_PathSp apply: whatever
   the argument, the text the path start state writes behind a serialization is a canonical path. *)
From RU Require Import Base.Prelude Base.Utf8 Base.Utf8Facts Model.AsciiSet Gen.Tables
  Model.PercentEncoding Model.HostT Model.UrlRecord Model.Parser Model.Setters Model.WF
  Proofs.ListN Proofs.C14_Set Proofs.C14_Enc Proofs.C14_Views Proofs.C02_Enc Proofs.C02_Parts
  Proofs.C02_Opaque Proofs.C02_Path Proofs.C02_PathL1 Proofs.C02_Reach Proofs.C16_RT Proofs.C02_AuthParts
  Proofs.C02_Auth Proofs.C02_AuthWf Proofs.C02_PathSp Proofs.C02_AuthSp.
Open Scope N_scope.
Open Scope list_scope.

Fixpoint qh_sub (l : list N) : list N :=
  match l with
  | [] => []
  | c :: r => if c =? 63 then 37 :: 51 :: 70 :: qh_sub r
              else if c =? 35 then 37 :: 50 :: 51 :: qh_sub r else c :: qh_sub r
  end.

Lemma usv_qh_sub l : usv_list l -> usv_list (qh_sub l).
Proof.
  induction l as [|c r IH]; intros H; [constructor|]. apply usv_cons in H. destruct H as [Hc Hr]. cbn [qh_sub].
  destruct (c =? 63); [repeat (apply usv_cons; split; [left; lia|]); exact (IH Hr)|].
  destruct (c =? 35); [repeat (apply usv_cons; split; [left; lia|]); exact (IH Hr)|].
  apply usv_cons. split; [exact Hc | exact (IH Hr)].
Qed.

Lemma enc_q : encode T_PATH (utf8_encode [63]) = [37; 51; 70] /\ encode T_PATH (utf8_encode [37; 51; 70]) = [37; 51; 70]
  /\ encode T_PATH (utf8_encode [35]) = [37; 50; 51] /\ encode T_PATH (utf8_encode [37; 50; 51]) = [37; 50; 51].
Proof. vm_compute. repeat split. Qed.

Lemma inp_next_sub l : forall c r, inp_next l = Some (c, r) -> is_qh c = false -> inp_next (qh_sub l) = Some (c, qh_sub r).
Proof.
  induction l as [|x t IH]; intros c r H Hq; [discriminate|].
  destruct (is_tnl x) eqn:Et.
  - rewrite inp_next_tnl in H by exact Et. cbn [qh_sub].
    assert ((x =? 63) = false /\ (x =? 35) = false) as [-> ->] by (unfold is_tnl in Et; lia).
    rewrite inp_next_tnl by exact Et. exact (IH c r H Hq).
  - rewrite inp_next_cons in H by exact Et. inversion H; subst x t. cbn [qh_sub]. unfold is_qh in Hq.
    assert ((c =? 63) = false /\ (c =? 35) = false) as [-> ->] by lia.
    apply inp_next_cons. exact Et.
Qed.

Lemma inp_next_none_sub l : inp_next l = None -> inp_next (qh_sub l) = None.
Proof.
  induction l as [|x t IH]; intros H; [reflexivity|].
  destruct (is_tnl x) eqn:Et.
  - rewrite inp_next_tnl in H by exact Et. cbn [qh_sub].
    assert ((x =? 63) = false /\ (x =? 35) = false) as [-> ->] by (unfold is_tnl in Et; lia).
    rewrite inp_next_tnl by exact Et. exact (IH H).
  - rewrite inp_next_cons in H by exact Et. discriminate.
Qed.
(* what qh_sub puts in place of one character *)
Definition esc (c : N) : list N := if c =? 63 then [37; 51; 70] else if c =? 35 then [37; 50; 51] else [c].

Lemma qh_sub_cons c r : qh_sub (c :: r) = esc c ++ qh_sub r.
Proof. unfold esc. cbn [qh_sub]. destruct (c =? 63); [reflexivity|]. destruct (c =? 35); reflexivity. Qed.

Lemma esc_plain st c : is_tnl c = false -> sep st c = false -> forallb (plain_char st) (esc c) = true.
Proof.
  intros Ht Hs. unfold esc. destruct (c =? 63) eqn:E63; [reflexivity|]. destruct (c =? 35) eqn:E35; [reflexivity|].
  cbn [forallb]. unfold plain_char, not_tnl, is_qh. rewrite Ht, Hs, E63, E35. reflexivity.
Qed.

Lemma esc_enc c : encode T_PATH (utf8_encode (esc c)) = encode T_PATH (utf8_encode [c]) /\ (is_usv c -> usv_list (esc c)).
Proof.
  unfold esc. destruct (c =? 63) eqn:E63.
  - apply N.eqb_eq in E63. subst c. split; [rewrite (proj1 enc_q); exact (proj1 (proj2 enc_q))|].
    intros _. repeat (apply usv_cons; split; [left; lia|]). constructor.
  - destruct (c =? 35) eqn:E35.
    + apply N.eqb_eq in E35. subst c. split; [rewrite (proj1 (proj2 (proj2 enc_q))); exact (proj2 (proj2 (proj2 enc_q)))|].
      intros _. repeat (apply usv_cons; split; [left; lia|]). constructor.
    + split; [reflexivity|]. intros Hc. apply usv_cons. split; [exact Hc | constructor].
Qed.

Lemma push_pending_setter st ser pend : usv_list pend ->
  push_pending CSetter st ser pend = ser ++ encode T_PATH (utf8_encode (rev pend)).
Proof.
  intros H. unfold push_pending. destruct pend as [|x y]; [cbn; rewrite app_nil_r; reflexivity|].
  unfold path_set. cbn [ctx_eqb]. apply push_encoded_eq. apply usv_rev. exact H.
Qed.

(* the setter context of the path loop = the URL-parser context on the text with '?' and '#' replaced by
   their escapes, for every scheme class: in the setter context the two are ordinary characters, and the drive arm
   of the file class does not look at the character it is at *)
Section ReduceAll.
Variable dbg : bool.
Variable st : scheme_type.
Variable ps : N.
Notation loopS := (parse_path_loop dbg CSetter st ps).
Notation loopU := (parse_path_loop dbg CUrlParser st ps).

(* pending texts that encode alike *)
Definition pend_eq (a b : list N) : Prop :=
  usv_list a /\ usv_list b /\ encode T_PATH (utf8_encode (rev a)) = encode T_PATH (utf8_encode (rev b)).

Lemma pend_eq_push ser a b : pend_eq a b -> push_pending CSetter st ser a = push_pending CUrlParser st ser b.
Proof. intros (Ha & Hb & E). rewrite push_pending_setter by exact Ha. rewrite push_pending_eq by exact Hb. rewrite E. reflexivity. Qed.

Lemma pend_eq_nil : pend_eq [] [].
Proof. split; [constructor|]. split; [constructor | reflexivity]. Qed.

Lemma pend_eq_esc c a b : is_usv c -> pend_eq a b -> pend_eq (c :: a) (rev (esc c) ++ b).
Proof.
  intros Hc (Ha & Hb & E). destruct (esc_enc c) as [Ee Hu]. split; [apply usv_cons; tauto|].
  split; [apply usv_app; split; [apply usv_rev; exact (Hu Hc) | exact Hb]|].
  rewrite rev_app_distr, rev_involutive. cbn [rev]. rewrite !enc_utf8_app, E, Ee. reflexivity.
Qed.

Lemma setter_plain c r ser ss pend hh : is_tnl c = false -> sep st c = false ->
  loopS (c :: r) ser ss pend hh
  = if drive_arm st ps ser then loopS r (push_pending CSetter st ser pend ++ [47]) (ss + 1) [c] hh
    else loopS r ser ss (c :: pend) hh.
Proof.
  intros Ht Hs. cbn [parse_path_loop]. rewrite Ht. cbn [ctx_eqb negb andb]. unfold sep in Hs. rewrite Hs.
  rewrite andb_false_r. reflexivity.
Qed.

Theorem loop_setter_all l : forall ser ss a b hh, usv_list l -> pend_eq a b ->
  loopS l ser ss a hh = loopU (qh_sub l) ser ss b hh.
Proof.
  induction l as [|c r IH]; intros ser ss a b hh Hu Hp.
  - cbn [qh_sub parse_path_loop]. rewrite (pend_eq_push ser a b Hp). reflexivity.
  - apply usv_cons in Hu. destruct Hu as [Hc Hr]. rewrite qh_sub_cons.
    destruct (is_tnl c) eqn:Et.
    + assert (esc c = [c]) as -> by (unfold esc, is_tnl in *; replace (c =? 63) with false by lia; replace (c =? 35) with false by lia; reflexivity).
      cbn [app parse_path_loop]. rewrite Et. rewrite (pend_eq_push ser a b Hp). exact (IH _ _ _ _ _ Hr pend_eq_nil).
    + destruct (sep st c) eqn:Es.
      * assert (esc c = [c]) as -> by (unfold esc, sep in *; replace (c =? 63) with false by lia; replace (c =? 35) with false by lia; reflexivity).
        cbn [app]. rewrite loop_sep by assumption. cbn [parse_path_loop]. rewrite Et. cbn [ctx_eqb negb andb].
        unfold sep in Es. rewrite Es. rewrite (pend_eq_push ser a b Hp).
        destruct (finish_segment dbg st ps (push_pending CUrlParser st ser b ++ [47]) ss true hh) as [[s2 hh2]|e|]; cbn [pbind];
          try reflexivity.
        exact (IH _ _ _ _ _ Hr pend_eq_nil).
      * rewrite setter_plain by assumption.
        rewrite loop_chars_arm; [| unfold esc; destruct (c =? 63); [|destruct (c =? 35)]; discriminate
                                 | exact (esc_plain st c Et Es) | exact (proj1 (proj2 Hp))].
        destruct (drive_arm st ps ser).
        -- rewrite (pend_eq_push ser a b Hp). apply IH; [exact Hr|].
           rewrite <- (app_nil_r (rev (esc c))). exact (pend_eq_esc c [] [] Hc pend_eq_nil).
        -- apply IH; [exact Hr | exact (pend_eq_esc c a b Hc Hp)].
Qed.

End ReduceAll.

Section Reduce.
Variable dbg : bool.
Variable st : scheme_type.
Hypothesis Hnf : st_is_file st = false.
Variable ps : N.

Theorem loop_setter_sub l : forall ser ss a b hh, usv_list l -> pend_eq a b ->
  parse_path_loop dbg CSetter st ps l ser ss a hh = parse_path_loop dbg CUrlParser st ps (qh_sub l) ser ss b hh.
Proof using dbg st Hnf ps. exact (loop_setter_all dbg st ps l). Qed.

End Reduce.

(* the path start state in the setter context: non-special scheme *)
Section SetterNS.
Variable dbg : bool.
Notation loopU := (parse_path_loop dbg CUrlParser STNotSpecial).

Lemma path_out_ns ser l0 s hh hh1 rm : usv_list l0 ->
  parse_path dbg CUrlParser STNotSpecial hh (nlen ser) (ser ++ [47]) l0 = POk (s, hh1, rm) ->
  exists p, pth_ok p /\ s = ser ++ pth_text p.
Proof.
  intros Hu0 Hl. destruct (parse_path_ns ser dbg l0 hh s hh1 rm Hu0 Hl) as (segs & last & -> & Hs & Hl' & _).
  exists (Some (segs, last)). split; [split; assumption | reflexivity].
Qed.

Lemma loop_all_tnl ps l : forall ser hh, inp_next l = None -> loopU ps l ser (nlen ser) [] hh = POk (ser, hh, []).
Proof.
  induction l as [|c r IH]; intros ser hh H; [apply loop_nil_empty|].
  destruct (is_tnl c) eqn:Et.
  - rewrite inp_next_tnl in H by exact Et. rewrite loop_cons_tnl by exact Et. cbn [push_pending]. exact (IH ser hh H).
  - rewrite inp_next_cons in H by exact Et. discriminate.
Qed.

Theorem pps_setter_ns ser p hh s hh' rem : usv_list p ->
  parse_path_start dbg CSetter STNotSpecial hh ser p = POk (s, hh', rem) ->
  exists p', pth_ok p' /\ s = ser ++ pth_text p'.
Proof.
  intros Hu. unfold parse_path_start, inp_split_first. cbn [st_is_special].
  destruct (inp_next p) as [[c r]|] eqn:En.
  - destruct ((c =? 63) || (c =? 35)) eqn:Eq.
    + intros H. inversion H; subst. exists None. cbn [pth_ok pth_text]. rewrite app_nil_r. split; [exact I | reflexivity].
    + unfold parse_path. destruct (c =? 47) eqn:E47.
      * apply N.eqb_eq in E47. subst c.
        rewrite (loop_setter_sub dbg STNotSpecial eq_refl (nlen ser) p ser (nlen ser) [] [] hh Hu pend_eq_nil).
        rewrite (loop_first_slash dbg (nlen ser) (qh_sub p) (qh_sub r) ser hh) by (apply inp_next_sub; [exact En | reflexivity]).
        apply path_out_ns. apply usv_qh_sub. exact (inp_next_usv p 47 r Hu En).
      * rewrite (loop_setter_sub dbg STNotSpecial eq_refl (nlen ser) p (ser ++ [47]) (nlen (ser ++ [47])) [] [] hh Hu pend_eq_nil).
        apply path_out_ns. apply usv_qh_sub. exact Hu.
  - unfold parse_path.
    rewrite (loop_setter_sub dbg STNotSpecial eq_refl (nlen ser) p ser (nlen ser) [] [] hh Hu pend_eq_nil).
    rewrite loop_all_tnl by (apply inp_next_none_sub; exact En).
    intros H. inversion H; subst. exists None. cbn [pth_ok pth_text]. rewrite app_nil_r. split; [exact I | reflexivity].
Qed.
End SetterNS.

(* special scheme *)
Section SetterSP.
Variable dbg : bool.
Notation loopU := (parse_path_loop dbg CUrlParser STSpecialNotFile).

Theorem pps_setter_sp ser p hh s hh' rem : usv_list p -> ends_with_byte 47 ser = false ->
  parse_path_start dbg CSetter STSpecialNotFile hh ser p = POk (s, hh', rem) ->
  exists segs last, forallb good_seg_sp segs = true /\ good_seg_sp last = true /\ s = ser ++ path_text segs last.
Proof.
  intros Hu Hends. unfold parse_path_start, inp_split_first. cbn [st_is_special]. rewrite Hends. cbn [negb].
  assert (forall l0, usv_list l0 ->
            parse_path dbg CSetter STSpecialNotFile hh (nlen ser) (ser ++ [47]) l0 = POk (s, hh', rem) ->
            exists segs last, forallb good_seg_sp segs = true /\ good_seg_sp last = true /\ s = ser ++ path_text segs last) as G.
  { intros l0 Hu0. unfold parse_path.
    rewrite (loop_setter_sub dbg STSpecialNotFile eq_refl (nlen ser) l0 (ser ++ [47]) (nlen (ser ++ [47])) [] [] hh Hu0 pend_eq_nil).
    intros Hl. destruct (parse_path_sp ser dbg (qh_sub l0) hh s hh' rem (usv_qh_sub l0 Hu0) Hl) as (segs & last & -> & Hs & Hl' & _).
    exists segs, last. repeat split; assumption. }
  destruct (inp_next p) as [[c r]|] eqn:En.
  - destruct (is_slash_or_bslash c); apply G; [exact (inp_next_usv p c r Hu En) | exact Hu].
  - apply G. exact Hu.
Qed.
End SetterSP.
