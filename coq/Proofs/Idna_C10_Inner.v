(* Proofs/Idna_C10_Inner.v - the fail-fast run of process_inner, for the C10 output theorem.
   In fail-fast mode every label-level function either leaves (SExit) or returns its text unchanged;
   the invariant InnerInv that process_inner establishes:
     - every ASCII character of domain_buffer is outside the deny list (okc);
     - every MixedCaseAscii / MixedCasePunycode entry of already_punycode is clean once lower-cased;
     - the POSITIONAL invariant: domain_name = P ++ join_dots rl with |P| = passthrough_up_to, P clean,
       and the leading Mixed entries of already_punycode carry exactly the leading labels of rl.
   The only adapter premise is NvNoTrunc (normalize_validate never returns a proper prefix of its argument);
   it is needed for the MixedCasePunycode entries only (after_punycode_decode compares the normalised text
   with the decoded text by zip, i.e. without a length check). *)
From RU Require Import Base.Prelude Base.Utf8 Base.U32_c13 Gen.Tables Model.Punycode Model.Uts46
  Proofs.C13_Ascii Proofs.Idna_Sim Proofs.Idna_Api Proofs.Idna_Known Proofs.Idna_Hyp Proofs.Idna_Redisc
  Proofs.Idna_C10_Deny Proofs.Idna_C10_Puny Proofs.Idna_C10_Prefix.

Definition NvNoTrunc (A : adapter) : Prop := forall l t, l = normalize_validate A l ++ t -> t = [].

Lemma sbind_ok {X Y : Type} (r : step X) (k : X -> step Y) y :
  sbind r k = SOk y -> exists x, r = SOk x /\ k x = SOk y.
Proof. destruct r as [x| |s]; cbn [sbind]; intros H; try discriminate. exists x. split; [reflexivity|exact H]. Qed.
Lemma lcons_ok c r l h : lcons c r = SOk (l, h) -> exists l0, r = SOk (l0, h) /\ l = c :: l0.
Proof.
  destruct r as [[l0 h0]| |s]; cbn [lcons]; intros H; try discriminate. inversion H. subst. exists l0. split; reflexivity.
Qed.
Lemma cons3_ok c r l h n : cons3 c r = SOk (l, h, n) -> exists l0, r = SOk (l0, h, n) /\ l = c :: l0.
Proof.
  destruct r as [[[l0 h0] n0]| |s]; cbn [cons3]; intros H; try discriminate. inversion H. subst. exists l0. split; reflexivity.
Qed.

(* fail-fast mode (ff = true): a label-level step that returns SOk returns its text and flag unchanged *)
Lemma scan_true bad l : forall he l' he', scan_mark true bad l he = SOk (l', he') ->
  l' = l /\ he' = he /\ existsb bad l = false.
Proof.
  induction l as [|c r IH]; intros he l' he' H; cbn [scan_mark] in H.
  - inversion H. repeat split.
  - destruct (bad c) eqn:E; [discriminate|]. apply lcons_ok in H. destruct H as (l0 & H & ->).
    destruct (IH _ _ _ H) as (-> & -> & Hx). cbn [existsb]. rewrite E. repeat split. exact Hx.
Qed.

Lemma check_hyphens_true a lab he l' he' : check_hyphens true a lab he = SOk (l', he') -> l' = lab /\ he' = he.
Proof.
  unfold check_hyphens. intros H.
  apply sbind_ok in H. destruct H as ([l1 h1] & H1 & H).
  assert (E1 : l1 = lab /\ h1 = he).
  { destruct lab as [|f r]; [inversion H1; split; reflexivity|].
    destruct (f =? HYPHEN); [discriminate|]. inversion H1; split; reflexivity. }
  destruct E1 as [-> ->]. clear H1.
  apply sbind_ok in H. destruct H as ([l2 h2] & H2 & H).
  assert (E2 : l2 = lab /\ h2 = he).
  { destruct (last_opt lab) as [x|]; [|inversion H2; split; reflexivity].
    destruct (x =? HYPHEN); [discriminate|]. inversion H2; split; reflexivity. }
  destruct E2 as [-> ->]. clear H2.
  destruct a; [inversion H; split; reflexivity|].
  destruct ((4 <=? len lab) && (nth 2 lab 0 =? HYPHEN) && (nth 3 lab 0 =? HYPHEN)); [discriminate|].
  inversion H; split; reflexivity.
Qed.

Section Inner.
Variable A : adapter.
Variable cfg : bool.
Variable deny : N.
Hypothesis HU : DenyUpper deny.
Hypothesis HL : LdhFree deny.

Lemma contextj_true rest : forall rhead he l he', contextj A cfg true rhead rest he = SOk (l, he') ->
  l = rev rhead ++ rest /\ he' = he.
Proof.
  induction rest as [|c tail IH]; intros rhead he l he' H; cbn [contextj] in H.
  - inversion H. rewrite app_nil_r. split; reflexivity.
  - assert (Hgo : forall H0 : contextj A cfg true (c :: rhead) tail he = SOk (l, he'), l = rev rhead ++ c :: tail /\ he' = he).
    { intros H0. destruct (IH _ _ _ _ H0) as [-> ->]. cbn [rev]. rewrite <- app_assoc. split; reflexivity. }
    destruct (negb (in_inclusive_range32 c T_IDNA_JOINER_LO T_IDNA_JOINER_HI)); [exact (Hgo H)|].
    destruct rhead as [|p rh]; [discriminate|].
    destruct (is_virama A p); [exact (Hgo H)|].
    destruct (c =? 8205); [discriminate|].
    destruct (cfg && negb (c =? 8204)); [discriminate|].
    destruct (negb (has_appropriately_joining_char A false (p :: rh)) || negb (has_appropriately_joining_char A true tail));
      [discriminate|exact (Hgo H)].
Qed.

Lemma check_label_true hy lab he fcm ncj l' he' :
  check_label A cfg true hy lab he fcm ncj = SOk (l', he') -> l' = lab /\ he' = he.
Proof.
  unfold check_label. intros H.
  apply sbind_ok in H. destruct H as ([l1 h1] & H1 & H).
  assert (E1 : l1 = lab /\ h1 = he).
  { destruct (negb (hy_is_allow hy)); [exact (check_hyphens_true _ _ _ _ _ H1)|inversion H1; split; reflexivity]. }
  destruct E1 as [-> ->]. clear H1.
  apply sbind_ok in H. destruct H as ([l2 h2] & H2 & H).
  assert (E2 : l2 = lab /\ h2 = he).
  { destruct fcm; [|inversion H2; split; reflexivity].
    destruct lab as [|f r]; [inversion H2; split; reflexivity|].
    destruct (is_mark A f); [discriminate|inversion H2; split; reflexivity]. }
  destruct E2 as [-> ->]. clear H2.
  apply sbind_ok in H. destruct H as ([l3 h3] & H3 & H).
  assert (E3 : l3 = lab /\ h3 = he).
  { destruct ncj; [|inversion H3; split; reflexivity]. exact (contextj_true _ _ _ _ _ H3). }
  destruct E3 as [-> ->]. clear H3.
  destruct (negb (is_ascii_l lab) && (PUNYCODE_ENCODE_MAX_INPUT_LENGTH <? len lab)); [discriminate|].
  inversion H; split; reflexivity.
Qed.

Lemma zip_mark_none n : forall l, zip_mark n l = None -> (exists t, l = n ++ t) \/ (exists t, n = l ++ t).
Proof.
  induction n as [|x nr IH]; intros l H.
  - left. exists l. reflexivity.
  - destruct l as [|y lr]; [right; exists (x :: nr); reflexivity|].
    cbn [zip_mark] in H. destruct (x =? y) eqn:E; [|discriminate]. apply N.eqb_eq in E. subst y.
    destruct (zip_mark nr lr) as [m|] eqn:Ez; [discriminate|].
    destruct (IH lr Ez) as [[t ->]|[t ->]]; [left|right]; exists t; reflexivity.
Qed.

Lemma okc_map_lower m l : Forall (okc deny) (map (apply_lower (N.lor deny m)) l).
Proof. apply Forall_forall. intros x Hx. apply in_map_iff in Hx. destruct Hx as (c & <- & _). apply apply_lower_okc. Qed.

Lemma apd_true m lb he cur he' : after_punycode_decode A true (N.lor deny m) lb he = SOk (cur, he') ->
  he' = he /\ cur = normalize_validate A lb /\ Forall (okc deny) cur /\ zip_mark cur lb = None.
Proof.
  unfold after_punycode_decode. intros H.
  apply sbind_ok in H. destruct H as ([nz h1] & H1 & H).
  apply scan_true in H1. destruct H1 as (-> & -> & Hf).
  destruct (zip_mark (map (apply_lower (N.lor deny m)) (normalize_validate A lb)) lb) as [mk|] eqn:Ez; [discriminate|].
  inversion H. subst cur he'. repeat split.
  - apply map_apply_lower_id. exact Hf.
  - apply okc_map_lower.
  - exact Ez.
Qed.

(* under NvNoTrunc every character of the decoded text is in the accepted (normalised) text *)
Lemma apd_in m lb he cur he' : NvNoTrunc A ->
  after_punycode_decode A true (N.lor deny m) lb he = SOk (cur, he') -> forall c, In c lb -> okc deny c.
Proof.
  intros HN H c Hc. destruct (apd_true _ _ _ _ _ H) as (_ & Hcur & Hok & Hz).
  rewrite Forall_forall in Hok. apply Hok.
  destruct (zip_mark_none _ _ Hz) as [[t Ht]|[t Ht]].
  - rewrite Hcur in Ht. pose proof (HN lb t Ht) as ->. rewrite app_nil_r in Ht. rewrite Hcur, <- Ht. exact Hc.
  - rewrite Ht. apply in_or_app. left. exact Hc.
Qed.

Definition entry_ok_pre (e : aal) : Prop :=
  match e with MixedCaseAscii m => lowclean deny m | MixedCasePunycode m => lowclean deny m | AalOther => True end.
Lemma end_sublabel_okc hy m cur he fcm ncj lab he' : Forall (okc deny) cur ->
  end_sublabel A cfg true hy (N.lor deny m) cur he fcm ncj = SOk (lab, he') -> Forall (okc deny) lab.
Proof.
  intros Hc. unfold end_sublabel.
  destruct (starts_with cur XN_PREFIX).
  2:{ intros H. apply check_label_true in H. destruct H as [-> _]. exact Hc. }
  intros H. cbv zeta in H. apply sbind_ok in H. destruct H as ([t h1] & H1 & H).
  apply scan_true in H1. destruct H1 as (-> & -> & Hna). rewrite firstn_skipn in H. rewrite Hna in H.
  destruct (last_opt cur) as [lst|]; [|discriminate].
  apply sbind_ok in H. destruct H as ([[c2 h2] p2] & H2 & H).
  destruct (lst =? HYPHEN); [discriminate|]. inversion H2. subst c2 h2 p2. clear H2.
  apply sbind_ok in H. destruct H as ([[c3 h3] p3] & H3 & H).
  destruct (PUNYCODE_DECODE_MAX_INPUT_LENGTH <? len cur - 4); [discriminate|]. inversion H3. subst c3 h3 p3. clear H3.
  cbn [negb] in H.
  destruct (decode_with cfg CharInternal (skipn 4 cur)) as [decoded| |s]; try discriminate.
  apply sbind_ok in H. destruct H as ([c4 h4] & H4 & H).
  apply check_label_true in H. destruct H as [-> _].
  exact (proj1 (proj2 (proj2 (apd_true _ _ _ _ _ H4)))).
Qed.

Lemma sublabels_ff hy m rest : forall s db cur he ap fcm ncj db' he' ap',
  sublabels A cfg true hy (N.lor deny m) s rest db cur he ap fcm ncj = SOk (db', he', ap') ->
  Forall (okc deny) db -> Forall (okc deny) cur -> Forall (okc deny) s -> Forall (Forall (okc deny)) rest ->
  Forall (okc deny) db' /\ exists k, ap' = ap ++ repeat AalOther k.
Proof.
  induction rest as [|s2 rest IH]; intros s db cur he ap fcm ncj db' he' ap' H Hdb Hcur Hs Hrest; cbn [sublabels] in H.
  - apply sbind_ok in H. destruct H as ([s1 h1] & H1 & H). apply scan_true in H1. destruct H1 as (-> & -> & _).
    apply sbind_ok in H. destruct H as ([lab h2] & H2 & H).
    apply end_sublabel_okc in H2; [|apply Forall_app; split; assumption].
    inversion H. subst. split; [apply Forall_app; split; assumption|]. exists 0%nat. cbn [repeat]. rewrite app_nil_r. reflexivity.
  - apply sbind_ok in H. destruct H as ([s1 h1] & H1 & H). apply scan_true in H1. destruct H1 as (-> & -> & _).
    apply sbind_ok in H. destruct H as ([lab h2] & H2 & H).
    apply end_sublabel_okc in H2; [|apply Forall_app; split; assumption].
    inversion Hrest as [|? ? Hs2 Hr]; subst.
    destruct (IH _ _ _ _ _ _ _ _ _ _ H) as [Hd (k & ->)]; try assumption.
    + apply Forall_app. split; [exact Hdb|]. apply Forall_app. split; [exact H2|].
      constructor; [apply clean_okc, dot_clean; exact HL|constructor].
    + constructor.
    + split; [exact Hd|]. exists (Datatypes.S k). cbn [repeat]. rewrite <- app_assoc. reflexivity.
Qed.

Lemma repeat_other_ok k : Forall entry_ok_pre (repeat AalOther k).
Proof. induction k as [|k IH]; cbn [repeat]; constructor; [exact I|exact IH]. Qed.

(* entry_ok is entry_ok_pre; AllMixedClean is the form InnerInv uses *)
Definition entry_ok : aal -> Prop := entry_ok_pre.
Definition AllMixedClean (ap : list aal) : Prop := Forall entry_ok ap.

Definition ext_ok (label : list N) (ap ap' : list aal) : Prop :=
  ap' = ap ++ [MixedCaseAscii label] \/ ap' = ap ++ [MixedCasePunycode label] \/ exists more, ap' = ap ++ AalOther :: more.

Lemma okc_map_upper ascii : bytes ascii -> Forall (okc deny) (map (apply_upper deny) ascii).
Proof.
  intros Hb. apply Forall_forall. intros x Hx. apply in_map_iff in Hx. destruct Hx as (b & <- & Hin).
  unfold bytes in Hb. rewrite Forall_forall in Hb. apply apply_upper_okc; [exact HL|exact (Hb b Hin)].
Qed.

Lemma lowclean_upper ascii : Forall (fun b => b < 128) ascii ->
  existsb is_fffd (map (apply_upper deny) ascii) = false -> lowclean deny ascii.
Proof.
  intros Ha Hf. apply Forall_forall. intros b Hb. rewrite Forall_forall in Ha.
  apply apply_upper_lowclean; [exact HU|exact HL|exact (Ha b Hb)|].
  intros Hq. pose proof (existsb_false_in is_fffd _ (apply_upper deny b) Hf (in_map _ _ _ Hb)) as Hx.
  unfold is_fffd in Hx. rewrite Hq, N.eqb_refl in Hx. discriminate.
Qed.

Lemma complexT_ff hy label db he ap ascii db' he' ap' : bytes ascii -> Forall (fun b => b < 128) ascii ->
  complexT true hy deny label db he ap ascii = SOk (db', he', ap') -> Forall (okc deny) db ->
  Forall (okc deny) db' /\ lowclean deny ascii /\ ap' = ap ++ [if he then AalOther else MixedCaseAscii label].
Proof.
  intros Hb Ha H Hdb. unfold complexT in H.
  apply sbind_ok in H. destruct H as ([c1 h1] & H1 & H). apply scan_true in H1. destruct H1 as (-> & -> & Hf).
  apply sbind_ok in H. destruct H as ([c2 h2] & H2 & H).
  assert (E : c2 = map (apply_upper deny) ascii /\ h2 = he).
  { destruct (negb (hy_is_allow hy)); [exact (check_hyphens_true _ _ _ _ _ H2)|inversion H2; split; reflexivity]. }
  destruct E as [-> ->]. inversion H. subst. repeat split.
  - apply Forall_app. split; [exact Hdb|exact (okc_map_upper ascii Hb)].
  - exact (lowclean_upper ascii Ha Hf).
Qed.

Lemma complexF_ff hy db he ap ascii non_ascii db' he' ap' : bytes ascii ->
  complexF A cfg true hy deny db he ap ascii non_ascii = SOk (db', he', ap') -> Forall (okc deny) db ->
  Forall (okc deny) db' /\ exists k, ap' = ap ++ AalOther :: repeat AalOther k.
Proof.
  intros Hb H Hdb. unfold complexF in H.
  apply sbind_ok in H. destruct H as ([c1 h1] & H1 & H). apply scan_true in H1. destruct H1 as (-> & -> & Hf).
  destruct (split1 DOT (map (apply_lower deny) (map_normalize A (utf8_lossy non_ascii)))) as [s rest] eqn:Es.
  assert (Hm : Forall (okc deny) (map (apply_lower deny) (map_normalize A (utf8_lossy non_ascii)))).
  { apply Forall_forall. intros x Hx. apply in_map_iff in Hx. destruct Hx as (c & <- & _). apply apply_lower_okc0. }
  destruct (split1_Forall _ _ _ _ _ Hm Es) as [Hs Hr].
  destruct (sublabels_ff _ _ _ _ _ _ _ _ _ _ _ _ _ H Hdb (okc_map_upper ascii Hb) Hs Hr) as [Hd (k & ->)].
  split; [exact Hd|]. exists k. rewrite <- app_assoc. reflexivity.
Qed.

(* the accepted MixedCasePunycode label, lower-cased, is clean *)
Lemma puny_label_lowclean ascii decoded m he cur he' : NvNoTrunc A -> Forall (fun b => b < 128) ascii ->
  has_punycode_prefix ascii = true ->
  decode_with cfg U8Internal (skipn 4 ascii) = Ok decoded ->
  after_punycode_decode A true (N.lor deny m) decoded he = SOk (cur, he') ->
  lowclean deny ascii.
Proof.
  intros HN Ha Hp Hd Hapd.
  destruct (xn_prefix_spec ascii Ha Hp) as (a & b & r & -> & Xa & Xb).
  cbn [skipn] in Hd. apply decode_with_chars in Hd; [|reflexivity].
  inversion Ha as [|? ? _ Ha1]; subst. inversion Ha1 as [|? ? _ Ha2]; subst.
  inversion Ha2 as [|? ? _ Ha3]; subst. inversion Ha3 as [|? ? _ Har]; subst.
  unfold lowclean.
  constructor; [destruct Xa as [-> | ->]; apply ldh_clean; try exact HL; reflexivity|].
  constructor; [destruct Xb as [-> | ->]; apply ldh_clean; try exact HL; reflexivity|].
  constructor; [apply ldh_clean; try exact HL; reflexivity|].
  constructor; [apply ldh_clean; try exact HL; reflexivity|].
  apply Forall_forall. intros c Hc. rewrite Forall_forall in Hd, Har.
  pose proof (Har c Hc) as Hlt.
  destruct (Hd c Hc) as [Hin|[Hdel|Hdig]].
  - cbn [inst_base_char] in Hin. apply okc_clean.
    + unfold to_lower, is_upper. destruct ((65 <=? c) && (c <=? 90)) eqn:E; lia.
    + exact (apd_in _ _ _ _ _ HN Hapd _ Hin).
  - subst c. apply ldh_clean; [exact HL|reflexivity].
  - cbn [inst_digit] in Hdig. apply ldh_clean; [exact HL|exact (digit_u8_lower c Hdig)].
Qed.

Lemma label_nonempty_ff hy label db he ap db' he' ap' : NvNoTrunc A -> bytes label ->
  Forall (okc deny) db -> AllMixedClean ap ->
  label_nonempty A cfg true hy deny label db he ap = SOk (db', he', ap') ->
  Forall (okc deny) db' /\ AllMixedClean ap' /\ ext_ok label ap ap'.
Proof.
  intros HN Hb Hdb Hap H. rewrite label_nonempty_eq in H.
  destruct (split_ascii_fast_path_prefix label) as [ascii non_ascii] eqn:Es.
  pose proof (split_ascii_app _ _ _ Es) as Hlab.
  assert (Hba : bytes ascii).
  { unfold bytes in *. rewrite Hlab in Hb. apply Forall_app in Hb. exact (proj1 Hb). }
  assert (HF : forall H0 : complexF A cfg true hy deny db he ap ascii non_ascii = SOk (db', he', ap'),
            Forall (okc deny) db' /\ AllMixedClean ap' /\ ext_ok label ap ap').
  { intros H0. destruct (complexF_ff _ _ _ _ _ _ _ _ _ Hba H0 Hdb) as [Hd (k & ->)].
    split; [exact Hd|]. split.
    - apply Forall_app. split; [exact Hap|]. constructor; [exact I|exact (repeat_other_ok k)].
    - right; right. exists (repeat AalOther k). reflexivity. }
  destruct non_ascii as [|na nr]; [|exact (HF H)].
  rewrite app_nil_r in Hlab. subst ascii.
  pose proof (split_ascii_all label label Es) as Ha.
  destruct (has_punycode_prefix label) eqn:Ep.
  - destruct (negb match last_opt label with Some l => l =? HYPHEN | None => false end
              && (len label - 4 <=? PUNYCODE_DECODE_MAX_INPUT_LENGTH)); [|discriminate].
    destruct (decode_with cfg U8Internal (skipn 4 label)) as [decoded| |s] eqn:Ed; try discriminate.
    apply sbind_ok in H. destruct H as ([c1 h1] & H1 & H).
    apply sbind_ok in H. destruct H as ([c2 h2] & H2 & H).
    apply check_label_true in H2. destruct H2 as [-> ->]. inversion H. subst db' he' ap'.
    split; [apply Forall_app; split; [exact Hdb|exact (proj1 (proj2 (proj2 (apd_true _ _ _ _ _ H1))))]|].
    split; [|right; left; reflexivity].
    apply Forall_app. split; [exact Hap|]. constructor; [|constructor].
    exact (puny_label_lowclean label decoded _ _ _ _ HN Ha Ep Ed H1).
  - destruct (complexT_ff _ _ _ _ _ _ _ _ _ Hba Ha H Hdb) as (Hd & Hlc & ->).
    split; [exact Hd|]. split.
    + apply Forall_app. split; [exact Hap|]. constructor; [|constructor]. destruct he; [exact I|exact Hlc].
    + destruct he; [right; right; exists []; reflexivity|left; reflexivity].
Qed.

(* mp_ok ap done, the positional invariant of the label loop: the leading MixedCaseAscii / MixedCasePunycode entries
   of already_punycode carry, in order, the leading labels of done.  The comparison stops at the first AalOther (nothing
   is required after it); when ap has no AalOther, done has exactly the labels of ap (mp_ok [] done is done = []) *)
Fixpoint mp_ok (ap : list aal) (done : list (list N)) : Prop :=
  match ap with
  | [] => done = []
  | MixedCaseAscii m :: ap' => match done with [] => False | x :: done' => x = m /\ mp_ok ap' done' end
  | MixedCasePunycode m :: ap' => match done with [] => False | x :: done' => x = m /\ mp_ok ap' done' end
  | AalOther :: _ => True
  end.

Lemma mp_ok_snoc_mixed e l ap : (e = MixedCaseAscii l \/ e = MixedCasePunycode l) ->
  forall done, mp_ok ap done -> mp_ok (ap ++ [e]) (done ++ [l]).
Proof.
  intros He. induction ap as [|x ap IH]; intros done H; cbn [mp_ok app] in *.
  - subst done. destruct He as [-> | ->]; cbn [mp_ok app]; split; reflexivity.
  - destruct x as [m|m|]; [| |exact I];
      (destruct done as [|y done']; [contradiction|]; destruct H as [-> H]; cbn [app]; split; [reflexivity|exact (IH _ H)]).
Qed.
Lemma mp_ok_snoc_other more x ap : forall done, mp_ok ap done -> mp_ok (ap ++ AalOther :: more) (done ++ x).
Proof.
  induction ap as [|e ap IH]; intros done H; cbn [mp_ok app] in *.
  - exact I.
  - destruct e as [m|m|]; [| |exact I];
      (destruct done as [|y done']; [contradiction|]; destruct H as [-> H]; cbn [app]; split; [reflexivity|exact (IH _ H)]).
Qed.
Lemma mp_ok_ext label ap ap' done : ext_ok label ap ap' -> mp_ok ap done -> mp_ok ap' (done ++ [label]).
Proof.
  intros [->|[->|(more & ->)]] H.
  - apply mp_ok_snoc_mixed; [left; reflexivity|exact H].
  - apply mp_ok_snoc_mixed; [right; reflexivity|exact H].
  - apply mp_ok_snoc_other. exact H.
Qed.

Variable d : list N.
Hypothesis Hd : bytes d.

Definition LInv (s : ist) (todo : list (list N)) : Prop :=
  Forall (okc deny) (i_db s) /\ AllMixedClean (i_ap s) /\
  exists P, len P = i_ptu s /\ Forall (clean deny) P /\
    if i_inpre s then d = P ++ tailtext (i_seen s) todo /\ i_ap s = []
    else exists done, d = P ++ join_dots (done ++ todo) /\ mp_ok (i_ap s) done.

(* entering the non-passthrough part (or continuing in it) with `label` *)
Lemma LInv_enter s label todo : LInv s (label :: todo) ->
  exists P done0, len P = (if i_seen s && i_inpre s then i_ptu s + 1 else i_ptu s) /\ Forall (clean deny) P /\
    d = P ++ join_dots ((done0 ++ [label]) ++ todo) /\ mp_ok (i_ap s) done0 /\ bytes label.
Proof.
  intros (_ & _ & P & HP & Hc & H).
  destruct (i_inpre s).
  - destruct H as [Hdd Hap]. rewrite Hap. rewrite tailtext_cons in Hdd.
    assert (Hbl : bytes label).
    { unfold bytes in *. rewrite Hdd in Hd. apply Forall_app in Hd. destruct Hd as [_ H2].
      apply Forall_app in H2. destruct H2 as [_ H2]. apply Forall_app in H2. exact (proj1 H2). }
    destruct (i_seen s); cbn [andb].
    + exists (P ++ [DOT]), []. repeat split.
      * rewrite len_app, HP. reflexivity.
      * apply Forall_app. split; [exact Hc|]. constructor; [exact (dot_clean deny HL)|constructor].
      * cbn [app]. rewrite join_dots_cons. rewrite <- app_assoc. exact Hdd.
      * exact Hbl.
    + exists P, []. repeat split; try assumption. cbn [app]. rewrite join_dots_cons. exact Hdd.
  - destruct H as (done & Hdd & Hm). rewrite andb_false_r.
    exists P, done. repeat split; try assumption.
    + rewrite <- app_assoc. exact Hdd.
    + unfold bytes in *. rewrite Hdd in Hd. apply Forall_app in Hd. destruct Hd as [_ H2].
      assert (G : forall ls, Forall is_byte (join_dots ls) -> forall x, In x ls -> Forall is_byte x).
      { clear. induction ls as [|l r IH]; intros H x Hx; [destruct Hx|].
        rewrite join_dots_cons in H. apply Forall_app in H. destruct H as [H1 H2].
        destruct Hx as [->|Hx]; [exact H1|]. apply IH; [|exact Hx].
        destruct r; [constructor|]. cbn [tailtext] in H2. inversion H2. assumption. }
      apply (G _ H2). apply in_or_app. right. left. reflexivity.
Qed.

Lemma label_step_inv hy label s s' todo : NvNoTrunc A -> LInv s (label :: todo) ->
  label_step A cfg true hy deny label s = SOk s' -> LInv s' todo.
Proof.
  intros HN HI H. unfold label_step in H.
  destruct (i_inpre s && is_passthrough_ascii_label label) eqn:Ec.
  - (* passthrough label *)
    apply andb_true_iff in Ec. destruct Ec as [Epre Epass].
    inversion H. clear H. subst s'.
    destruct HI as (Hdb & Hap & P & HP & Hc & HH). rewrite Epre in HH. destruct HH as [Hdd Hnil].
    unfold LInv. cbn [i_db i_ap i_ptu i_inpre i_seen].
    split; [exact Hdb|]. split; [exact Hap|].
    rewrite tailtext_cons in Hdd.
    assert (Hbl : bytes label).
    { unfold bytes in *. rewrite Hdd in Hd. apply Forall_app in Hd. destruct Hd as [_ H2].
      apply Forall_app in H2. destruct H2 as [_ H2]. apply Forall_app in H2. exact (proj1 H2). }
    exists (P ++ (if i_seen s then [DOT] else []) ++ label). repeat split.
    + rewrite !len_app, HP. destruct (i_seen s); cbn [len List.length]; unfold len; cbn [List.length]; lia.
    + apply Forall_app. split; [exact Hc|]. apply Forall_app. split.
      * destruct (i_seen s); [constructor; [exact (dot_clean deny HL)|constructor]|constructor].
      * exact (passthrough_clean deny label HL Hbl Epass).
    + rewrite <- !app_assoc. exact Hdd.
    + exact Hnil.
  - destruct (LInv_enter s label todo HI) as (P & done0 & HP & Hc & Hdd & Hm & Hbl).
    destruct HI as (Hdb & Hap & _).
    assert (Hdb2 : Forall (okc deny) (if i_seen s && negb (i_inpre s) then i_db s ++ [DOT] else i_db s)).
    { destruct (i_seen s && negb (i_inpre s)); [|exact Hdb]. apply Forall_app. split; [exact Hdb|].
      constructor; [apply clean_okc, dot_clean; exact HL|constructor]. }
    destruct label as [|b r].
    + inversion H. clear H. subst s'. unfold LInv. cbn [i_db i_ap i_ptu i_inpre i_seen].
      split; [exact Hdb2|]. split.
      { apply Forall_app. split; [exact Hap|]. constructor; [constructor|constructor]. }
      exists P. split; [exact HP|]. split; [exact Hc|]. exists (done0 ++ [[]]). split; [exact Hdd|].
      apply mp_ok_snoc_mixed; [left; reflexivity|exact Hm].
    + apply sbind_ok in H. destruct H as ([[db1 he1] ap1] & H1 & H). inversion H. clear H. subst s'.
      destruct (label_nonempty_ff _ _ _ _ _ _ _ _ HN Hbl Hdb2 Hap H1) as (Hd1 & Ha1 & Hext).
      unfold LInv. cbn [i_db i_ap i_ptu i_inpre i_seen].
      split; [exact Hd1|]. split; [exact Ha1|].
      exists P. split; [exact HP|]. split; [exact Hc|]. exists (done0 ++ [b :: r]). split; [exact Hdd|].
      exact (mp_ok_ext _ _ _ _ Hext Hm).
Qed.

Lemma labels_loop_inv hy labels : NvNoTrunc A -> forall s s', LInv s labels ->
  labels_loop A cfg true hy deny labels s = SOk s' -> LInv s' [].
Proof.
  intros HN. induction labels as [|l r IH]; intros s s' HI H; cbn [labels_loop] in H.
  - inversion H. subst. exact HI.
  - apply sbind_ok in H. destruct H as (s1 & H1 & H). exact (IH _ _ (label_step_inv _ _ _ _ _ HN HI H1) H).
Qed.

(* the bidi pass changes nothing in fail-fast mode *)
Lemma rtl_middle_true prior : forall ns he p' he' ns', rtl_middle A true prior ns he = SOk (p', he', ns') ->
  p' = prior /\ he' = he.
Proof.
  induction prior as [|c r IH]; intros ns he p' he' ns' H; cbn [rtl_middle] in H.
  - inversion H. split; reflexivity.
  - destruct (negb (bc_mid_rtl (bidi_class A c))); [discriminate|].
    destruct ns.
    + apply cons3_ok in H. destruct H as (l0 & H & ->). destruct (IH _ _ _ _ _ H) as [-> ->]. split; reflexivity.
    + destruct (bc_an (bidi_class A c)); [discriminate|].
      apply cons3_ok in H. destruct H as (l0 & H & ->). destruct (IH _ _ _ _ _ H) as [-> ->]. split; reflexivity.
    + destruct (bc_en (bidi_class A c)); [discriminate|].
      apply cons3_ok in H. destruct H as (l0 & H & ->). destruct (IH _ _ _ _ _ H) as [-> ->]. split; reflexivity.
Qed.

Lemma bidi_label_true label he l' he' : bidi_label A true label he = SOk (l', he') -> l' = label /\ he' = he.
Proof.
  unfold bidi_label. destruct label as [|first tail]; [intros H; inversion H; split; reflexivity|].
  destruct (negb (bc_first (bidi_class A first))); [discriminate|].
  destruct (trim_nsm A tail) as [[[prior last] nsms]|] eqn:Et; [|intros H; inversion H; split; reflexivity].
  apply trim_nsm_spec in Et. intros H.
  apply sbind_ok in H. destruct H as ([last1 h1] & H1 & H).
  assert (E1 : last1 = last /\ h1 = he).
  { destruct (negb (if bc_ltr (bidi_class A first) then bc_last_ltr (bidi_class A last) else bc_last_rtl (bidi_class A last)));
      [discriminate|inversion H1; split; reflexivity]. }
  destruct E1 as [-> ->]. clear H1.
  destruct (bc_ltr (bidi_class A first)).
  - apply sbind_ok in H. destruct H as ([p1 h2] & H2 & H). apply scan_true in H2. destruct H2 as (-> & -> & _).
    inversion H. subst. split; reflexivity.
  - apply sbind_ok in H. destruct H as ([[p1 h2] ns] & H2 & H). apply rtl_middle_true in H2. destruct H2 as [-> ->].
    destruct (match ns with European => bc_an (bidi_class A last) | Arabic => bc_en (bidi_class A last) | Undecided => false end);
      [discriminate|]. inversion H. subst. split; reflexivity.
Qed.

Lemma bidi_labels_true labels : forall he ls he', bidi_labels A true labels he = SOk (ls, he') -> ls = labels.
Proof.
  induction labels as [|l r IH]; intros he ls he' H; cbn [bidi_labels] in H.
  - inversion H. reflexivity.
  - apply sbind_ok in H. destruct H as ([l1 h1] & H1 & H). apply bidi_label_true in H1. destruct H1 as [-> ->].
    apply sbind_ok in H. destruct H as ([r1 h2] & H2 & H). apply IH in H2. subst r1. inversion H. reflexivity.
Qed.

Definition InnerInv (ptu : N) (db : list N) (ap : list aal) : Prop :=
  Forall (okc deny) db /\ AllMixedClean ap /\
  exists P rl, d = P ++ join_dots rl /\ len P = ptu /\ Forall (clean deny) P /\ mp_ok ap rl.

Lemma LInv_final s : LInv s [] -> InnerInv (i_ptu s) (i_db s) (i_ap s).
Proof.
  intros (Hdb & Hap & P & HP & Hc & H). split; [exact Hdb|]. split; [exact Hap|].
  destruct (i_inpre s).
  - destruct H as [Hdd Hnil]. exists P, []. rewrite Hnil. repeat split; try assumption.
    rewrite Hdd. destruct (i_seen s); reflexivity.
  - destruct H as (done & Hdd & Hm). exists P, done. rewrite app_nil_r in Hdd. repeat split; assumption.
Qed.

Lemma process_innermost_ff hy tail pre ptu b he db ap : NvNoTrunc A ->
  d = pre ++ tail -> Forall (clean deny) pre ->
  process_innermost A cfg true hy deny d tail = IRes ptu b he db ap ->
  IRes ptu b he db ap = I_EXIT \/ InnerInv ptu db ap.
Proof.
  intros HN Hdd Hpre. unfold process_innermost.
  set (s0 := {| i_ptu := len d - len tail; i_seen := false; i_inpre := true; i_db := []; i_he := false; i_ap := [] |}).
  assert (H0 : LInv s0 (split_on DOT tail)).
  { unfold LInv, s0. cbn [i_db i_ap i_ptu i_inpre i_seen]. split; [constructor|]. split; [constructor|].
    exists pre. repeat split.
    - rewrite Hdd, len_app. lia.
    - exact Hpre.
    - cbn [tailtext]. rewrite join_split. exact Hdd. }
  destruct (labels_loop A cfg true hy deny (split_on DOT tail) s0) as [s| |p] eqn:El.
  - pose proof (LInv_final s (labels_loop_inv hy _ HN _ _ H0 El)) as HI.
    destruct (is_bidi A cfg (i_db s)) as [[|]| |p]; try discriminate.
    + destruct (bidi_labels A true (split_on DOT (i_db s)) (i_he s)) as [[ls he2]| |p] eqn:Eb.
      * apply bidi_labels_true in Eb. subst ls. rewrite join_split. intros H. inversion H. subst. right. exact HI.
      * intros H. left. symmetry. exact H.
      * discriminate.
    + intros H. inversion H. subst. right. exact HI.
  - intros H. left. symmetry. exact H.
  - discriminate.
Qed.

Theorem process_inner_ff hy ptu b he db ap : NvNoTrunc A ->
  process_inner A cfg true hy deny d = IRes ptu b he db ap ->
  IRes ptu b he db ap = I_EXIT \/ InnerInv ptu db ap.
Proof.
  intros HN. unfold process_inner. destruct (fast_tier d d) as [tail|] eqn:Ef.
  - destruct (fast_tier_some d Hd d tail Ef) as [->|(pre & Hdd & Hp)].
    + apply (process_innermost_ff hy d []); [exact HN|reflexivity|constructor].
    + apply (process_innermost_ff hy tail pre); [exact HN|exact Hdd|].
      eapply Forall_impl; [|exact Hp]. intros x. apply lower_or_dot_clean. exact HL.
  - intros H. inversion H. subst. right. split; [constructor|]. split; [constructor|].
    exists d, []. repeat split.
    + cbn [join_dots]. rewrite app_nil_r. reflexivity.
    + eapply Forall_impl; [|exact (fast_tier_none d Hd d Ef)]. intros x. apply lower_or_dot_clean. exact HL.
Qed.
End Inner.
