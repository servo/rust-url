(* Proofs/C01_EqFileCover.v - known_c01_v2: class 1 of known_c01_v1 (the whole file scheme) without the proved file class:
   (i)  the recogniser of Known_C01 for the file scheme, k_file_ok (Model/KnownC01.v: the Standard's file path
        state run on RAW segments), implies the recogniser of the proved file class, file_class_ok
        (Proofs/C01_EqFile.v: the same run on the Standard's own state, percent-encoded buffer and segment
        list) - the encoder of the path set is invisible to the dot-segment tests and to the drive-letter
        tests, and commutes with the normalization of a first drive letter;
   (ii) known_c01_v2 = 0 -> known_c01_v1 = 0 (the predicate with class 1 = the whole file scheme) or the input is
        "file:" R inside in_class_file with no file base;
   (iii) the assembled statement for known_c01_v2: in_proved_class4 = in_proved_class3 + the file
        class, host hypothesis host_hyp4 = host_hyp3 + host_agree_file on the one host text of a file input. *)
From Coq Require Import ZifyBool ZifyN.
From RU Require Import Base.Prelude Base.Utf8 Model.HostT Model.UrlRecord Model.Parser Model.Host Model.KnownC01
  Spec.Whatwg Spec.WhatwgHostParse Proofs.C02_Parts Proofs.C09_Host Proofs.C01_EqRun Proofs.C01_EqPath
  Proofs.C01_EqAuthSpec Proofs.C01_EqAuthModel Proofs.C01_EqSpSpec Proofs.C01_KnownExact Proofs.C01_Override
  Proofs.C01_EqAsm Proofs.C01_EqShape Proofs.C01_EqCover Proofs.C01_EqFileSpec Proofs.C01_EqFilePath
  Proofs.C01_EqFile Proofs.C01_EqFileHost Proofs.C01_EqFileAsm.

(* (i) the raw run against the Standard's state *)
Notation U := (upe in_path_set).

Lemma enc_cp_cases c : (in_path_set c = false /\ utf8_percent_encode_cp in_path_set c = [c])
  \/ (in_path_set c = true /\ exists h l tl, utf8_percent_encode_cp in_path_set c = 37 :: h :: l :: tl).
Proof.
  destruct (in_path_set c) eqn:E.
  - right. split; [reflexivity|]. destruct (upe_cp_shape' c) as [K|K]; [|exact K].
    exfalso. unfold utf8_percent_encode_cp in K. rewrite E in K.
    unfold utf8_encode in K. cbn [flat_map] in K. rewrite app_nil_r in K.
    unfold utf8_encode1 in K. destruct (c <? 128); [discriminate K|]. destruct (c <? 2048); [discriminate K|].
    destruct (c <? 65536); discriminate K.
  - left. split; [reflexivity|]. unfold utf8_percent_encode_cp. rewrite E. reflexivity.
Qed.

Lemma alpha_enc a : is_alpha a = true -> utf8_percent_encode_cp in_path_set a = [a].
Proof.
  intros H. unfold utf8_percent_encode_cp. assert (in_path_set a = false) as ->; [|reflexivity].
  unfold is_alpha, is_upper, is_lower in H. unfold in_path_set, in_query_set, in_c0_control_set, is_c0_control. cbn [memb]. lia.
Qed.
Lemma colbar_enc b : (b =? 58) || (b =? 124) = true -> utf8_percent_encode_cp in_path_set b = [b].
Proof.
  intros H. unfold utf8_percent_encode_cp. assert (in_path_set b = false) as ->; [|reflexivity].
  unfold in_path_set, in_query_set, in_c0_control_set, is_c0_control. cbn [memb]. lia.
Qed.

Lemma U_nil : U [] = [].
Proof. reflexivity. Qed.

(* a Windows drive letter is not touched by the encoder, and an encoded buffer that is one was one *)
Lemma wdl_U_id B : is_windows_drive_letter B = true -> U B = B.
Proof.
  destruct B as [|a [|b [|c r]]]; try discriminate. cbn [is_windows_drive_letter]. intros H.
  apply andb_true_iff in H. destruct H as [Ha Hb].
  rewrite !upe_cons, (alpha_enc a Ha), (colbar_enc b Hb). reflexivity.
Qed.
Lemma wdl_U_raw B : is_windows_drive_letter (U B) = true -> is_windows_drive_letter B = true.
Proof.
  intros H.
  assert (starts_with_wdl (U B ++ [47]) = true) as K.
  { destruct (U B) as [|a [|b [|c r]]]; try discriminate H. cbn [is_windows_drive_letter] in H.
    cbn [app starts_with_wdl]. rewrite H. reflexivity. }
  apply wdl_enc_raw in K. unfold k_wdl in K.
  destruct B as [|a [|b rest]]; [discriminate K | |].
  { exfalso. cbn [app starts_with_wdl] in K. replace ((47 =? 58) || (47 =? 124)) with false in K by reflexivity.
    rewrite andb_false_r in K. discriminate K. }
  cbn [app starts_with_wdl] in K. apply andb_true_iff in K. destruct K as [K _]. apply andb_true_iff in K. destruct K as [Ha Hb].
  rewrite !upe_cons, (alpha_enc a Ha), (colbar_enc b Hb) in H. cbn [app] in H.
  destruct (U rest) as [|x y] eqn:E; [|discriminate H].
  pose proof (upe_nil_iff in_path_set rest) as Kn. rewrite E in Kn. destruct rest; [|discriminate Kn].
  cbn [is_windows_drive_letter]. rewrite Ha, Hb. reflexivity.
Qed.
Lemma wdl_U B : is_windows_drive_letter (U B) = is_wdl B.
Proof.
  rewrite is_wdl_agree. destruct (is_windows_drive_letter B) eqn:E.
  - rewrite (wdl_U_id B E). exact E.
  - destruct (is_windows_drive_letter (U B)) eqn:E2; [|reflexivity]. rewrite (wdl_U_raw B E2) in E. discriminate E.
Qed.
Lemma nwdl_is_wdl s : is_normalized_windows_drive_letter s = true -> is_windows_drive_letter s = true.
Proof.
  destruct s as [|a [|b [|c r]]]; try discriminate. cbn [is_normalized_windows_drive_letter is_windows_drive_letter].
  intros H. apply andb_true_iff in H. destruct H as [-> ->]. reflexivity.
Qed.
Lemma nwdl_U B : is_normalized_windows_drive_letter (U B) = is_normalized_wdl B.
Proof.
  rewrite is_nwdl_agree. destruct (is_windows_drive_letter B) eqn:E.
  - rewrite (wdl_U_id B E). reflexivity.
  - destruct (is_normalized_windows_drive_letter (U B)) eqn:E2.
    + rewrite (wdl_U_raw B (nwdl_is_wdl _ E2)) in E. discriminate E.
    + destruct (is_normalized_windows_drive_letter B) eqn:E3; [|reflexivity]. rewrite (nwdl_is_wdl _ E3) in E. discriminate E.
Qed.

Lemma pref_U_raw B : wdl_pref (U B) = true -> kf_pref B = true.
Proof.
  destruct B as [|x [|y r]].
  - discriminate.
  - rewrite upe_cons, U_nil, app_nil_r. destruct (enc_cp_cases x) as [[_ E]|[_ (h & l & tl & E)]]; rewrite E; discriminate.
  - rewrite !upe_cons.
    destruct (enc_cp_cases x) as [[_ E]|[_ (h & l & tl & E)]]; rewrite E; [|discriminate].
    destruct (enc_cp_cases y) as [[_ E2]|[_ (h & l & tl & E2)]]; rewrite E2; cbn [app wdl_pref kf_pref].
    + intros H; exact H.
    + replace ((37 =? 58) || (37 =? 124)) with false by reflexivity. rewrite andb_false_r. discriminate.
Qed.

Lemma k_nil_eq {A} (l : list A) : k_nil l = match l with [] => true | _ => false end.
Proof. reflexivity. Qed.
Lemma is_nil_map P : is_nil (map U P) = k_nil P.
Proof. destruct P; reflexivity. Qed.

Lemma last_wdl_U_raw P : last_is_wdl (map U P) = true -> kf_last_wdl P = true.
Proof.
  unfold last_is_wdl, kf_last_wdl. rewrite <- map_rev. destruct (rev P) as [|s r]; [discriminate|]. cbn [map].
  apply wdl_enc_raw.
Qed.

Lemma map_removelast {A B} (f : A -> B) l : removelast (map f l) = map f (removelast l).
Proof.
  induction l as [|a l IH]; [reflexivity|]. destruct l as [|b l]; [reflexivity|].
  change (f a :: removelast (map f (b :: l)) = f a :: map f (removelast (b :: l))). rewrite IH. reflexivity.
Qed.

Lemma shorten_U P : shorten_f (map U P) = map U (kf_shorten P).
Proof.
  destruct P as [|p0 [|p1 P']]; [reflexivity| |].
  - cbn [map shorten_f kf_shorten]. rewrite nwdl_U. destruct (is_normalized_wdl p0); reflexivity.
  - change (removelast (map U (p0 :: p1 :: P')) = map U (removelast (p0 :: p1 :: P'))). apply map_removelast.
Qed.

Lemma norm_U P B : norm_first (map U P) (U B) = U (kf_norm P B).
Proof.
  unfold norm_first, kf_norm. rewrite is_nil_map, wdl_U.
  destruct (k_nil P && is_wdl B) eqn:E; [|reflexivity].
  apply andb_true_iff in E. destruct E as [_ E]. rewrite is_wdl_agree in E.
  rewrite (wdl_U_id B E). destruct B as [|a [|b [|c r]]]; try discriminate E.
  cbn [is_windows_drive_letter] in E. apply andb_true_iff in E. destruct E as [Ha _].
  symmetry. apply wdl_U_id. cbn [is_windows_drive_letter]. rewrite Ha. reflexivity.
Qed.

Lemma fin_U P B sep : fin_f (map U P) (U B) sep = map U (kf_fin P B sep).
Proof.
  unfold fin_f, kf_fin. rewrite double_dot_enc, single_dot_enc, shorten_U, norm_U.
  destruct (is_double_dot B); [destruct sep; [reflexivity | rewrite map_app; reflexivity]|].
  destruct (is_single_dot B); [destruct sep; [reflexivity | rewrite map_app; reflexivity]|].
  rewrite map_app. reflexivity.
Qed.

Lemma spath_U t : forall P B, fst (spath_f t (map U P) (U B)) = map U (kf_path t P B).
Proof.
  induction t as [|c r IH]; intros P B; cbn [spath_f kf_path].
  - cbn [fst]. apply fin_U.
  - change (k_sl c) with (is_sl c). change (k_qh c) with (is_qh c). destruct (is_sl c).
    + rewrite fin_U. change (@nil N) with (U []) at 1. apply IH.
    + destruct (is_qh c); [cbn [fst]; apply fin_U|].
      rewrite upe_snoc. apply IH.
Qed.

Lemma sole_U P : sole_nwdl (map U P) = kf_sole P.
Proof. destruct P as [|p0 [|p1 P']]; try reflexivity. cbn [map sole_nwdl kf_sole]. apply nwdl_U. Qed.

Lemma fin_ok_U hh P B : kf_fin_ok hh P B = true -> fin_okf hh (map U P) (U B) = true.
Proof.
  unfold kf_fin_ok, fin_okf, fin_ok2, fin_ok. rewrite double_dot_enc, is_nil_map, wdl_U, sole_U. intros H.
  apply andb_true_iff in H. destruct H as [H1 H2]. rewrite H2, andb_true_r.
  destruct (is_double_dot B); [|reflexivity]. cbn [andb] in *.
  destruct (kf_sole P); [apply orb_true_r|]. cbn [negb] in H1. rewrite andb_true_r in H1. rewrite orb_false_r.
  destruct (last_is_wdl (map U P)) eqn:E; [|reflexivity]. rewrite (last_wdl_U_raw P E) in H1. discriminate H1.
Qed.

Lemma fpath_ok_U hh t : forall P B, kf_path_ok hh t P B = true -> fpath_ok hh t (map U P) (U B) = true.
Proof.
  induction t as [|c r IH]; intros P B H; cbn [fpath_ok kf_path_ok] in *.
  - exact (fin_ok_U hh P B H).
  - change (k_sl c) with (is_sl c) in H. change (k_qh c) with (is_qh c) in H. destruct (is_sl c).
    + apply andb_true_iff in H. destruct H as [H1 H2]. rewrite (fin_ok_U hh P B H1). cbn [andb].
      rewrite fin_U. change (@nil N) with (U []) at 1. exact (IH _ _ H2).
    + destruct (is_qh c); [exact (fin_ok_U hh P B H)|].
      apply andb_true_iff in H. destruct H as [H1 H2]. rewrite upe_snoc, (IH _ _ H2), andb_true_r.
      rewrite is_nil_map. destruct (k_nil P); [|reflexivity]. cbn [andb] in *.
      destruct (wdl_pref (U B)) eqn:E; [|reflexivity]. rewrite (pref_U_raw B E) in H1. exact H1.
Qed.

Lemma strip_U P : strip_f (map U P) = map U (kf_strip P).
Proof.
  induction P as [|s r IH]; [reflexivity|]. cbn [map strip_f kf_strip].
  rewrite upe_nil_iff. change (is_nil s) with (k_nil s). destruct (k_nil s); [exact IH | reflexivity].
Qed.

Lemma segs_eqb_U a : forall b, kf_segs_eqb a b = true -> segs_eqb (map U a) (map U b) = true.
Proof.
  induction a as [|x a IH]; intros [|y b] H; try discriminate H; [reflexivity|].
  cbn [kf_segs_eqb] in H. apply andb_true_iff in H. destruct H as [H1 H2]. cbn [map segs_eqb].
  apply list_eqb_spec in H1. subst y. rewrite (IH b H2), andb_true_r. apply list_eqb_spec. reflexivity.
Qed.

Lemma fp_ok_U hh tm ts : kf_ok hh tm ts = true -> fp_ok hh tm ts = true.
Proof.
  unfold kf_ok, fp_ok. intros H. apply andb_true_iff in H. destruct H as [H1 H2].
  change (@nil (list N)) with (map U []). change (@nil N) with (U []).
  rewrite (fpath_ok_U hh tm [] [] H1). cbn [andb]. rewrite !spath_U, strip_U. exact (segs_eqb_U _ _ H2).
Qed.

Lemma kf_path_text_eq X : kf_path_text X = path_text_s X.
Proof. destruct X as [|c r]; [reflexivity|]. reflexivity. Qed.

Theorem k_file_ok_class R : k_file_ok R = true -> file_class_ok R = true.
Proof.
  unfold k_file_ok, file_class_ok.
  destruct R as [|c1 R1]; [apply fp_ok_U|]. change (k_sl c1) with (is_sl c1).
  destruct (is_sl c1); [|apply fp_ok_U].
  destruct R1 as [|c2 T]; [apply fp_ok_U|]. change (k_sl c2) with (is_sl c2).
  destruct (is_sl c2); [|apply fp_ok_U].
  cbv zeta. rewrite k_apart_true, k_arest_true, kf_path_text_eq, <- is_wdl_agree. intros H.
  apply andb_true_iff in H. destruct H as [H H3]. apply andb_true_iff in H. destruct H as [H1 H2].
  rewrite H1, (fp_ok_U _ _ _ H2). cbn [andb].
  change (k_nil (as_part T)) with (is_nil (as_part T)) in H3.
  destruct (is_nil (as_part T)); [reflexivity|]. cbn [orb] in *. exact (fp_ok_U _ _ _ H3).
Qed.

(* (ii) known_c01_v2 against known_c01_v1 *)
Lemma known_split base input : known_c01_v2 base input = 0 ->
  known_c01_v1 base input = 0 \/ k_file_narrow_v2 base input = true.
Proof.
  unfold known_c01_v2. cbv zeta.
  destruct ((known_c01_v1 base input =? 1) && k_file_narrow_v2 base input) eqn:E.
  - intros _. right. apply andb_true_iff in E. exact (proj2 E).
  - intros H. left. exact H.
Qed.

(* known_c01_v2 is below known_c01_v1: whatever is outside known_c01_v1 is outside known_c01_v2 *)
Lemma known_v1_zero base input : known_c01_v1 base input = 0 -> known_c01_v2 base input = 0.
Proof. intros H. unfold known_c01_v2. cbv zeta. rewrite H. reflexivity. Qed.

(* the classes 2-4 are untouched *)
Lemma known_class_same base input : known_c01_v2 base input <> 0 -> known_c01_v2 base input = known_c01_v1 base input.
Proof.
  unfold known_c01_v2. cbv zeta. destruct ((known_c01_v1 base input =? 1) && k_file_narrow_v2 base input).
  - intros H. exfalso. apply H. reflexivity.
  - intros _. reflexivity.
Qed.

Lemma narrow_in_class base input : k_file_narrow_v2 base input = true -> in_class_file input = true.
Proof.
  unfold k_file_narrow_v2, in_class_file. cbv zeta. rewrite cleaned_spec_clean.
  destruct (spec_scheme (spec_clean input)) as [[sch R]|] eqn:Es.
  - destruct (spec_scheme_some_leading _ _ _ Es) as [-> ->]. intros H.
    apply andb_true_iff in H. destruct H as [H H2]. apply andb_true_iff in H. destruct H as [H1 _].
    change s_file with str_file in H1. rewrite H1. cbn [andb]. exact (k_file_ok_class R H2).
  - rewrite (spec_scheme_none_leading _ Es). discriminate.
Qed.

Lemma narrow_no_file_base base sbase input : base_sch_rel base sbase ->
  k_file_narrow_v2 base input = true -> no_file_base sbase = true.
Proof.
  unfold k_file_narrow_v2, base_sch_rel, no_file_base. cbv zeta.
  destruct (leading_scheme (cleaned input)) as [s|]; [|discriminate].
  destruct base as [b|]; destruct sbase as [sb|]; try contradiction; [|reflexivity].
  intros Hb H. apply andb_true_iff in H. destruct H as [H _]. apply andb_true_iff in H. destruct H as [_ H].
  rewrite <- Hb. exact H.
Qed.

(* (iii) the assembled statement for known_c01_v2 *)
Definition in_proved_class4 (sbase : option spec_url) (input : list N) : bool :=
  in_proved_class3 sbase input || (no_file_base sbase && in_class_file input).

Lemma in_proved_class4_of3 sbase input : in_proved_class3 sbase input = true -> in_proved_class4 sbase input = true.
Proof. intros H. unfold in_proved_class4. rewrite H. reflexivity. Qed.

(* host_hyp3 (the one host string of the class of in_proved_class3, if any) and, for a "file:" input of the file
   class, host_agree_file on the text between "//" and the path *)
Definition host_hyp4 (hp hpo : list N -> result host) (hd : host -> list N)
           (shp : bool -> list N -> option spec_host) (shs : spec_host -> list N)
           (sbase : option spec_url) (input : list N) : Prop :=
  host_hyp3 hp hpo hd shp shs sbase input
  /\ (no_file_base sbase && in_class_file input = true -> host_agree_file hp hd shp shs (class_host_text_f input)).

Section Statements4.
Variable dbg : bool.
Variable hp hpo : list N -> result host.
Variable hd : host -> list N.
Variable shp : bool -> list N -> option spec_host.
Variable shs : spec_host -> list N.

(* coverage: outside the narrowed Known_C01 every input is in a proved class *)
Theorem all_covers4 input base sbase : full_rel dbg shs base sbase ->
  known_c01_v2 base input = 0 -> in_proved_class4 sbase input = true.
Proof.
  intros Hb Hk. destruct (known_split base input Hk) as [H1|Hn].
  - apply in_proved_class4_of3. exact (all_covers dbg shs input base sbase Hb H1).
  - unfold in_proved_class4. rewrite (narrow_in_class base input Hn).
    rewrite (narrow_no_file_base base sbase input (full_rel_sch _ _ _ _ Hb) Hn). apply orb_true_r.
Qed.

Theorem partial_equivalence_good4 input base sbase : usv_list input ->
  full_rel dbg shs base sbase -> in_proved_class4 sbase input = true ->
  host_hyp4 hp hpo hd shp shs sbase input ->
  agree_good dbg shs (parse_url dbg hp hpo hd None base input) (spec_basic_url_parse shp input sbase)
  /\ (forall su u, spec_basic_url_parse shp input sbase = BDone su -> parse_url dbg hp hpo hd None base input = POk u ->
        full_base dbg shs u su).
Proof.
  intros Hu Hb Hc [HH3 HHf]. unfold in_proved_class4 in Hc.
  destruct (in_proved_class3 sbase input) eqn:Hc3.
  - assert (base_rel3 dbg shs base sbase) as Hb3.
    { destruct base as [b|]; destruct sbase as [sb|]; cbn [full_rel] in Hb; try contradiction; [exact (proj1 Hb) | exact I]. }
    pose proof (partial_equivalence_good3 dbg hp hpo hd shp shs input base sbase Hu Hb3 Hc3 HH3) as A.
    split; [exact A|]. intros su u HS Hm. rewrite HS in A.
    exact (class3_result_full dbg shs shp input base sbase _ su u Hu Hb Hc3 HS A Hm).
  - cbn [orb] in Hc. pose proof Hc as Hc'. apply andb_true_iff in Hc'. destruct Hc' as [Hnf Hcf].
    exact (class_file_good dbg hp hpo hd shp shs base sbase input Hu Hcf (full_rel_sch _ _ _ _ Hb) Hnf (HHf Hc)).
Qed.

(* C01_statement for known_c01_v2 *)
Theorem statement_all4 input base sbase : usv_list input ->
  full_rel dbg shs base sbase -> known_c01_v2 base input = 0 ->
  host_hyp4 hp hpo hd shp shs sbase input ->
  agree_good dbg shs (parse_url dbg hp hpo hd None base input) (spec_basic_url_parse shp input sbase)
  /\ (forall su u, spec_basic_url_parse shp input sbase = BDone su -> parse_url dbg hp hpo hd None base input = POk u ->
        full_base dbg shs u su).
Proof.
  intros Hu Hb Hk HH. exact (partial_equivalence_good4 input base sbase Hu Hb (all_covers4 input base sbase Hb Hk) HH).
Qed.

End Statements4.

(* the host model of Model/Host.v against the Standard's host parser over the same oracle *)
Theorem host_hyp4_model idna : (forall bs d, idna bs = Some d -> Forall dom_char_ok d) ->
  forall sbase input, usv_list input ->
  host_hyp4 (host_parse idna) host_parse_opaque host_display (spec_host_parser idna) spec_host_serializer sbase input.
Proof.
  intros Hout sbase input Hu. split; [exact (host_hyp3_model idna Hout sbase input Hu)|]. intros _.
  apply host_agree_file_real; [exact Hout | apply class_host_text_f_usv; exact Hu].
Qed.

Theorem statement_all4_model dbg idna : IdnaOK idna -> forall input base sbase,
  usv_list input -> full_rel dbg spec_host_serializer base sbase -> known_c01_v2 base input = 0 ->
  agree_good dbg spec_host_serializer
    (parse_url dbg (host_parse idna) host_parse_opaque host_display None base input)
    (spec_basic_url_parse (spec_host_parser idna) input sbase)
  /\ (forall su u, spec_basic_url_parse (spec_host_parser idna) input sbase = BDone su ->
        parse_url dbg (host_parse idna) host_parse_opaque host_display None base input = POk u ->
        full_base dbg spec_host_serializer u su).
Proof.
  intros HI input base sbase Hu Hb Hk. apply statement_all4; try assumption.
  apply host_hyp4_model; [exact (idna_out idna HI) | exact Hu].
Qed.

Theorem statement_instance4 dbg idna : IdnaOK idna -> forall input base sbase,
  usv_list input -> full_rel dbg spec_host_serializer base sbase -> known_c01_v2 base input = 0 ->
  statement_shape dbg spec_host_serializer
    (parse_url dbg (host_parse idna) host_parse_opaque host_display None base input)
    (spec_basic_url_parse (spec_host_parser idna) input sbase).
Proof.
  intros HI input base sbase Hu Hb Hk. apply agree_good_shape.
  exact (proj1 (statement_all4_model dbg idna HI input base sbase Hu Hb Hk)).
Qed.

(* the same with a UTF-8 encoding override *)
Theorem statement_all4_model_utf8 dbg idna : IdnaOK idna -> forall input base sbase,
  usv_list input -> full_rel dbg spec_host_serializer base sbase -> known_c01_v2 base input = 0 ->
  agree_good dbg spec_host_serializer
    (parse_url dbg (host_parse idna) host_parse_opaque host_display (Some utf8_encode) base input)
    (spec_basic_url_parse (spec_host_parser idna) input sbase).
Proof.
  intros HI input base sbase Hu Hb Hk. rewrite parse_url_utf8_override.
  exact (proj1 (statement_all4_model dbg idna HI input base sbase Hu Hb Hk)).
Qed.

(* class 1 of known_c01_v1 against class 1 of known_c01_v2.
   in the first only (proved, the sides agree):  file:///C:/a/../b ;  file://localhost/x ;  file://h.x/a/./b?q#f ;
   fIle:<TAB>\c|/x ;  file: ;  also against a non-file base.
   in both (the sides differ):  file:////foo (F-C01-3) ;  file://h.x/C:/ (F-C01-1) ;  file:///C|/x (F-C01-11) ;
   file:/a/C:/../x (F-C01-5) ;  file:///C| (the witness of C01_known_classes_refuted) ;  and, not decided by
   statement_all4 of this file, everything resolved against a file base (for that: Proofs/C01_EqFileCover2.v,
   C01_EqFileCover3.v) *)
Definition fnar_1 : list N := [102;105;108;101;58;47;47;47;67;58;47;97;47;46;46;47;98].
Definition fnar_2 : list N := [102;105;108;101;58;47;47;108;111;99;97;108;104;111;115;116;47;120].
Definition fnar_3 : list N := [102;105;108;101;58;47;47;104;46;120;47;97;47;46;47;98;63;113;35;102].
Definition fnar_4 : list N := [102;73;108;101;58;9;92;99;124;47;120].
Definition fnar_5 : list N := [102;105;108;101;58].
Definition fstay_1 : list N := [102;105;108;101;58;47;47;47;47;102;111;111].
Definition fstay_2 : list N := [102;105;108;101;58;47;47;104;46;120;47;67;58;47].
Definition fstay_3 : list N := [102;105;108;101;58;47;47;47;67;124;47;120].
Definition fstay_4 : list N := [102;105;108;101;58;47;97;47;67;58;47;46;46;47;120].

Theorem known_file_narrowed :
  (known_c01_v1 None fnar_1 = 1 /\ known_c01_v2 None fnar_1 = 0)
  /\ (known_c01_v1 None fnar_2 = 1 /\ known_c01_v2 None fnar_2 = 0)
  /\ (known_c01_v1 None fnar_3 = 1 /\ known_c01_v2 None fnar_3 = 0)
  /\ (known_c01_v1 None fnar_4 = 1 /\ known_c01_v2 None fnar_4 = 0)
  /\ (known_c01_v1 None fnar_5 = 1 /\ known_c01_v2 None fnar_5 = 0)
  /\ known_c01_v2 None fstay_1 = 1 /\ known_c01_v2 None fstay_2 = 1 /\ known_c01_v2 None fstay_3 = 1 /\ known_c01_v2 None fstay_4 = 1
  /\ known_c01_v2 None wit_k1 = 1 /\ known_c01_v2 None wit_k2 = 2 /\ known_c01_v2 None wit_k3 = 3 /\ known_c01_v2 None wit_k4 = 4.
Proof. vm_compute. repeat split. Qed.

(* bases: a non-file base does not matter for "file:" R; a file base keeps the input in class 1 *)
Theorem known_file_narrowed_base :
  match parse_url true (host_parse id_idna) host_parse_opaque host_display None None nar_1,
        parse_url true (host_parse id_idna) host_parse_opaque host_display None None file_base_text with
  | POk bh, POk bf => known_c01_v2 (Some bh) fnar_1 = 0 /\ known_c01_v2 (Some bh) fnar_3 = 0
                      /\ known_c01_v2 (Some bf) fnar_1 = 1 /\ known_c01_v2 (Some bf) [120] = 1 /\ known_c01_v2 (Some bf) [47; 120] = 1
                      /\ known_c01_v2 (Some bf) [35; 102] = 0 /\ known_c01_v2 (Some bf) [] = 0
  | _, _ => False
  end.
Proof. vm_compute. repeat split. Qed.
