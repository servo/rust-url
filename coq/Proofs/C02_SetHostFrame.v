(* Proofs/C02_SetHostFrame.v - Url::set_host_internal computed once (set_host_internal_gen) on the frame
      ser = S0 ++ H ++ [":" port] ++ R ++ ["?" q] ++ ["#" f]     (S0 = everything in front of the host text H)
   where S0 is scheme "://" userinfo, or scheme ":" alone - then the setter inserts "//".  The new host text replaces
   H (and, for the quirks host setter, the port text is replaced as well); every offset behind the host moves by the
   difference of the lengths.  Instances: the frame with authority, the canonical record auth_url, and the canonical
   record without authority and without the "/." marker. *)
From RU Require Import Base.Prelude Base.Utf8 Base.Utf8Facts Model.AsciiSet Gen.Tables
  Model.PercentEncoding Model.HostT Model.UrlRecord Model.Parser Model.Setters Model.WF
  Proofs.ListN Proofs.C14_Set Proofs.C14_Enc Proofs.C14_Views Proofs.C02_Enc Proofs.C02_Parts
  Proofs.C02_Opaque Proofs.C02_Path Proofs.C02_PathL1 Proofs.C02_Reach Proofs.C16_RT Proofs.C02_AuthParts
  Proofs.C02_Auth Proofs.C02_AuthWf Proofs.C02_PathSp Proofs.C02_AuthSp Proofs.C02_AuthMain Proofs.C02_SetQF
  Proofs.C02_Canon Proofs.C02_SetPort.
Open Scope N_scope.
Open Scope list_scope.

Section Frame.
Variable dbg : bool.
Variable hd : host -> list N.

Lemma has_authority_front sch X Y ue' hs' he' hi' pt' ps' qs' fs' :
  has_authority dbg (mkUrl ((sch ++ 58 :: 47 :: 47 :: X) ++ Y) (nlen sch) ue' hs' he' hi' pt' ps' qs' fs') = Some true.
Proof. rewrite <- app_assoc. apply has_authority_prefix. Qed.

(* opt_new_port = None: Url::set_host / set_ip_host / quirks hostname; Some np: quirks host.
   S0 = sch ++ 58 :: Y; without "//" at the head of Y the code (its debug assertions) wants Y empty and no userinfo. *)
Theorem set_host_internal_gen sch Y H pt R ue hi q f h' onp (ha := starts_with [47; 47] Y) :
  (ha = false -> Y = [] /\ ue = nlen (sch ++ [58])) ->
  set_host_internal dbg hd (hp_url ((sch ++ 58 :: Y) ++ H) pt R (nlen sch) ue (nlen (sch ++ 58 :: Y)) hi q f) h' onp
  = Some (hp_url ((if ha then sch ++ 58 :: Y else (sch ++ [58]) ++ [47; 47]) ++ hd h') (match onp with Some np => np | None => pt end) R
                 (nlen sch) (if ha then ue else ue + 2) (if ha then nlen (sch ++ 58 :: Y) else nlen (sch ++ [58]) + 2)
                 (hi_of_host h') q f).
Proof.
  intros Hna. subst ha. set (S0 := sch ++ 58 :: Y) in *. set (U := hp_url (S0 ++ H) pt R (nlen sch) ue (nlen S0) hi q f).
  unfold set_host_internal.
  change (host_start U) with (nlen S0). change (host_end U) with (nlen (S0 ++ H)).
  change (path_start U) with (nlen ((S0 ++ H) ++ port_text pt)).
  change (username_end U) with ue. change (scheme_end U) with (nlen sch). change (port U) with pt.
  change (query_start U) with (qf_qs (nlen (((S0 ++ H) ++ port_text pt) ++ R)) q).
  change (fragment_start U) with (qf_fs (nlen (((S0 ++ H) ++ port_text pt) ++ R)) q f).
  assert (ser U = S0 ++ H ++ port_text pt ++ R ++ qf_text q f) as Es by (unfold U; rewrite hp_ser, <- !app_assoc; reflexivity).
  assert (truncate (ser U) (nlen S0) = S0) as -> by (rewrite Es; apply nfirstn_app_len).
  assert (has_authority dbg (set_ser U S0) = Some (starts_with [47; 47] Y)) as -> by apply has_authority_prefix.
  (* the suffix kept, and what follows the choice of the front: the same for any front s1 *)
  assert (u_slice_from U (match onp with Some _ => nlen ((S0 ++ H) ++ port_text pt) | None => nlen (S0 ++ H) end)
          = Some (match onp with Some _ => R ++ qf_text q f | None => port_text pt ++ R ++ qf_text q f end)) as ->.
  { unfold u_slice_from. rewrite Es. destruct onp.
    - rewrite !(app_assoc _ _ (R ++ _)), (app_assoc S0). rewrite slice_from_o_some by (rewrite (nlen_app _ (R ++ _)); lia).
      apply f_equal, nskipn_app_len.
    - rewrite (app_assoc S0). rewrite slice_from_o_some by (rewrite (nlen_app (S0 ++ H)); lia). apply f_equal, nskipn_app_len. }
  cbn [bindo].
  match goal with |- bindo _ ?T = _ =>
    assert (forall s1 ue' hs', T (s1, ue', hs') = Some (hp_url (s1 ++ hd h') (match onp with Some np => np | None => pt end) R
                                                            (nlen sch) ue' hs' (hi_of_host h') q f)) as Tail end.
  { intros s1 ue' hs'. cbv beta iota zeta. destruct onp as [np|].
    - assert (match np with Some p => (s1 ++ hd h') ++ [58] ++ decimal p | None => s1 ++ hd h' end = (s1 ++ hd h') ++ port_text np) as ->
        by (destruct np; [reflexivity | symmetry; apply app_nil_r]).
      rewrite adjust_ge by lia. cbn [bindo]. rewrite adjust_qs, adjust_fs. cbn [bindo]. f_equal. unfold hp_url, qf_url.
      rewrite N.sub_diag, N.add_0_l. rewrite <- (nlen_app _ R). rewrite <- !app_assoc. reflexivity.
    - rewrite adjust_ge by (rewrite (nlen_app (S0 ++ H)); lia). cbn [bindo].
      replace (((S0 ++ H) ++ port_text pt) ++ R) with ((S0 ++ H) ++ port_text pt ++ R) by (rewrite <- !app_assoc; reflexivity).
      rewrite adjust_qs, adjust_fs. cbn [bindo]. f_equal. unfold hp_url, qf_url.
      assert (nlen ((S0 ++ H) ++ port_text pt) - nlen (S0 ++ H) + nlen (s1 ++ hd h') = nlen ((s1 ++ hd h') ++ port_text pt)) as ->
        by (rewrite !nlen_app; lia).
      assert (nlen (s1 ++ hd h') + nlen (port_text pt ++ R) = nlen (((s1 ++ hd h') ++ port_text pt) ++ R)) as ->
        by (rewrite !nlen_app; lia).
      rewrite <- !app_assoc. reflexivity. }
  destruct (starts_with [47; 47] Y) eqn:Eha; cbn [negb bindo]; [apply Tail|].
  destruct (Hna eq_refl) as [-> ->]. subst S0.
  assert ((if dbg then x <- slice_o (sch ++ [58]) (nlen sch) (nlen (sch ++ [58])) ;; assert_o (list_eqb x [58]) ;;;
                       assert_o (nlen (sch ++ [58]) =? nlen (sch ++ [58])) else Some tt) = Some tt) as ->.
  { destruct dbg; [|reflexivity]. rewrite slice_o_some by (rewrite ?nlen_app; lia).
    rewrite nskipn_app_len, nlen_app, N.add_comm, N.add_sub. cbn [nfirstn N.to_nat Pos.to_nat Pos.iter_op firstn bindo list_eqb].
    rewrite N.eqb_refl. reflexivity. }
  cbn [bindo]. apply Tail.
Qed.

Theorem set_host_internal_frame sch UI R ue H pt hi q f h' onp :
  set_host_internal dbg hd (hp_url (((sch ++ [58; 47; 47]) ++ UI) ++ H) pt R (nlen sch) ue (nlen ((sch ++ [58; 47; 47]) ++ UI)) hi q f) h' onp
  = Some (hp_url (((sch ++ [58; 47; 47]) ++ UI) ++ hd h') (match onp with Some np => np | None => pt end) R (nlen sch) ue
                 (nlen ((sch ++ [58; 47; 47]) ++ UI)) (hi_of_host h') q f).
Proof. rewrite <- (app_assoc sch). apply (set_host_internal_gen sch (47 :: 47 :: UI)). discriminate. Qed.
End Frame.

(* the canonical record with authority *)
Section AuthHost.
Variable dbg : bool.
Variable hd : host -> list N.

Theorem set_host_internal_auth sch ui h pt p q f h' onp :
  set_host_internal dbg hd (auth_url hd sch ui h pt p q f) h' onp
  = Some (auth_url hd sch ui h' (match onp with Some np => np | None => pt end) p q f).
Proof.
  rewrite !auth_url_hp. unfold auth_A.
  replace (nlen sch + 3 + nlen (ui_text ui)) with (nlen ((sch ++ [58; 47; 47]) ++ ui_text ui))
    by (rewrite !nlen_app; reflexivity).
  apply set_host_internal_frame.
Qed.
End AuthHost.

(* a record without authority and without the "/." marker: the setter inserts "//" host *)
Section NoAuthHost.
Variable dbg : bool.
Variable hd : host -> list N.

Theorem set_host_internal_noauth sch segs last q f h' onp : starts_with s_ss (path_text segs last) = false ->
  set_host_internal dbg hd (noauth_url sch (path_text segs last) q f) h' onp
  = Some (auth_url hd sch UNone h' (match onp with Some np => np | None => None end) (Some (segs, last)) q f).
Proof.
  intros Hm. set (T := path_text segs last) in *.
  assert (noauth_url sch T q f = hp_url ((sch ++ [58]) ++ []) None T (nlen sch) (nlen (sch ++ [58])) (nlen (sch ++ [58])) HI_None q f) as ->.
  { rewrite noauth_url_qf. unfold noauth_pre, marker_of, hp_url. rewrite Hm. cbn [app port_text]. rewrite !app_nil_r, N.add_0_r. reflexivity. }
  rewrite (set_host_internal_gen dbg hd sch [] [] None T) by (split; reflexivity). cbv zeta. cbn [starts_with].
  rewrite auth_url_hp. unfold auth_A. cbn [ui_text ui_ulen pth_text]. fold T. rewrite <- !app_assoc. cbn [app].
  f_equal. f_equal; rewrite ?nlen_app; change (nlen [58]) with 1; change (nlen []) with 0; lia.
Qed.
End NoAuthHost.
