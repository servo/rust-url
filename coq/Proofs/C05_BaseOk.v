(* Proofs/C05_BaseOk.v - every record parse_url returns is again a possible base: base_ok u = true
   (C04_ParseTotal.base_ok: wf_b, and a special scheme has '/' at scheme_end + 1, i.e. the record is not
   cannot-be-a-base).  The second half (bk) needs no hypothesis on the host functions and none on the input:
     wqf_keep : with_query_and_fragment keeps scheme_end, the scheme text and a '/' behind the ':';
     ads_bk / pns_bk / parse_relative_bk / parse_file_bk : the arms;
     parse_url_bk : a special scheme of a parse result is followed by ":/" (base: wf_b and the same);
     parse_url_base_ok : with C03's parse_url_wf_all (HostWf), base_ok of the result from base_ok of the base -
                         the premise `base_ok b` of the join steps of CReach / reach03 is an invariant. *)
From RU Require Import Base.Prelude Base.Utf8 Model.AsciiSet Gen.Tables Model.PercentEncoding
  Model.HostT Model.UrlRecord Model.Parser Model.Setters Model.WF
  Proofs.ListN Proofs.C06_List Proofs.C02_Parts Proofs.C03_WF Proofs.C06_WFI Proofs.C06_Tail Proofs.C06_Steps
  Proofs.C06_Suffix Proofs.C06_PathParser Proofs.C06_FragQuery Proofs.C04_Parse Proofs.C04_PathTotal Proofs.C04_ParseTotal
  Proofs.C03_ReachParts Proofs.C03_Reach Proofs.C03_ReachFile
  Proofs.C05_Enc Proofs.C05_Parser Proofs.C05_Frag Proofs.C05_PathClean Proofs.C05_ParseUI Proofs.C05_ParseArms Proofs.C05_ParseAll.

(* '/' right behind "scheme:" *)
Definition sl1 (u : url) : Prop := nnth (ser u) (scheme_end u + 1) = Some 47.
Definition bk (u : url) : Prop := st_is_special (scheme_type_of (b_scheme u)) = true -> sl1 u.

Lemma base_ok_iff u : base_ok u = true <-> wf_b u = true /\ bk u.
Proof.
  unfold base_ok, bk, sl1. split.
  - intros H. apply andb_true_iff in H. destruct H as [W H]. split; [exact W|]. intros Hs. rewrite Hs in H.
    cbn [negb orb] in H. apply byte_eqb_nnth. exact H.
  - intros [W H]. rewrite W. cbn [andb]. destruct (st_is_special (scheme_type_of (b_scheme u))); [|reflexivity].
    cbn [negb orb]. apply byte_eqb_true_iff. exact (H eq_refl).
Qed.

(* the query / fragment states only append *)
Lemma pqf_keep ovr st se s rem s2 qs fs i c :
  parse_query_and_fragment ovr CUrlParser st se s rem = POk (s2, qs, fs) -> nnth s i = Some c -> nnth s2 i = Some c.
Proof.
  intros H Hn. destruct (pqf_shape _ _ _ _ _ _ _ _ H) as (q & f & -> & _).
  rewrite nnth_app_lt by exact (nnth_lt _ _ _ Hn). exact Hn.
Qed.

Lemma pqf_keep_pre ovr st se s rem s2 qs fs n :
  parse_query_and_fragment ovr CUrlParser st se s rem = POk (s2, qs, fs) -> n <= nlen s -> nfirstn n s2 = nfirstn n s.
Proof.
  intros H Hn. destruct (pqf_shape _ _ _ _ _ _ _ _ H) as (q & f & -> & _). apply nfirstn_app_le. exact Hn.
Qed.

Lemma wqf_keep ovr st se ue hs he hi pt ps s rem u :
  with_query_and_fragment ovr CUrlParser st se ue hs he hi pt ps s rem = POk u ->
  se + 1 <= ps -> ps <= nlen s ->
  scheme_end u = se /\ nfirstn se (ser u) = nfirstn se s
  /\ (nnth s (se + 1) = Some 47 -> nnth (ser u) (se + 1) = Some 47).
Proof.
  intros H L1 L2.
  destruct (with_query_and_fragment_steps ovr _ _ _ _ _ _ _ _ _ _ _ _ H) as (s1 & ps1 & s2 & qs & fs & F & Hb & ->).
  cbn [scheme_end ser].
  assert (se <= nlen s1 /\ nfirstn se s1 = nfirstn se s
          /\ (nnth s (se + 1) = Some 47 -> nnth s1 (se + 1) = Some 47)) as (A & B & C).
  { destruct F as [|Eps _|Eps _ (b0 & Hb0 & Hx)].
    - split; [lia|]. split; [reflexivity | tauto].
    - assert (nlen (nfirstn ps s) = ps) as Lf by (apply nlen_nfirstn; exact L2). split; [|split].
      + rewrite nlen_app, Lf. lia.
      + rewrite nfirstn_app_le by lia. apply nfirstn_nfirstn. lia.
      + intros _. rewrite nnth_app_ge by lia. rewrite Lf. replace (se + 1 - ps) with 0 by lia. reflexivity.
    - assert (nlen (nfirstn se s) = se) as Ls by (apply nlen_nfirstn; lia).
      split; [rewrite nlen_app, Ls; lia|]. split.
      + rewrite <- Ls at 1. rewrite nfirstn_app_exact. reflexivity.
      + intros _.
        replace (nfirstn se s ++ [58] ++ nskipn ps s) with ((nfirstn se s ++ [58]) ++ nskipn ps s)
          by (rewrite <- app_assoc; reflexivity).
        rewrite nnth_app_ge by (rewrite nlen_app, Ls; change (nlen [58]) with 1; lia).
        rewrite nlen_app, Ls. change (nlen [58]) with 1. replace (se + 1 - (se + 1)) with 0 by lia.
        rewrite nnth_nskipn, N.add_0_r, Hb0. apply N.eqb_eq in Hx. subst b0. reflexivity. }
  split; [reflexivity|]. split.
  - rewrite (pqf_keep_pre _ _ _ _ _ _ _ _ se Hb A). exact B.
  - intros H47. exact (pqf_keep _ _ _ _ _ _ _ _ _ _ Hb (C H47)).
Qed.

(* a fragment-only reference keeps the scheme *)
Lemma fragment_only_b_scheme b l u : wf_b b = true -> fragment_only b l = POk u -> b_scheme u = b_scheme b.
Proof.
  intros W H. unfold fragment_only in H. cbv zeta in H. pb H fs Hfs. inversion H; subst u. clear H.
  unfold b_scheme. cbn [scheme_end ser]. rewrite parse_fragment_text, <- app_assoc.
  pose proof (wf_se_lt_ps b W) as L1. destruct (wf_ps_le_path_end b W) as [L2 L3].
  destruct (bf_path_end b W) as (B1 & B2 & _).
  rewrite nfirstn_app_le by lia. apply (pre_firstn _ _ _ (scheme_end b) B1). lia.
Qed.

Section Arms.
Variable dbg : bool.
Variable hp hpo : list N -> result host.
Variable hd : host -> list N.
Variable ovr : option (list N -> list N).

Theorem ads_bk st se ser0 l u : nlen ser0 = se + 1 ->
  after_double_slash dbg hp hpo hd ovr CUrlParser st se ser0 l = POk u ->
  scheme_end u = se /\ nfirstn se (ser u) = nfirstn se ser0 /\ sl1 u.
Proof.
  intros L0 H0.
  destruct (after_double_slash_steps dbg hp hpo hd ovr _ _ _ _ _ _ H0)
    as (ser1 & ue & rm & ser2 & he & hi & pt & rm2 & s3 & hh & rm3 & Ha & Hb & Hc & H).
  destruct (parse_userinfo_shape _ _ _ _ _ _ Ha) as (x & -> & _).
  destruct (phap_pre hp hpo hd _ _ _ _ _ _ _ _ _ _ Hb) as (t & ->).
  destruct (parse_path_start_clean dbg CUrlParser st true _ rm2 s3 hh rm3 Hc) as (P & -> & HP).
  assert (((((ser0 ++ [47; 47]) ++ x) ++ t) ++ P) = ser0 ++ ([47; 47] ++ x ++ t ++ P)) as E
    by (rewrite <- !app_assoc; reflexivity).
  destruct (wqf_keep _ _ _ _ _ _ _ _ _ _ _ _ H) as (K1 & K2 & K3).
  - rewrite !nlen_app, L0. lia.
  - rewrite (nlen_app _ P). lia.
  - split; [exact K1|]. split.
    + rewrite K2, E. apply nfirstn_app_le. lia.
    + unfold sl1. rewrite K1. apply K3. rewrite E. rewrite nnth_app_ge by lia.
      replace (se + 1 - nlen ser0) with 0 by lia. reflexivity.
Qed.

(* "scheme:/path" and "scheme:opaque": the scheme text stays *)
Theorem pns_bk st se ser0 l u : nlen ser0 = se + 1 ->
  parse_non_special dbg hp hpo hd ovr CUrlParser st se ser0 l = POk u ->
  scheme_end u = se /\ nfirstn se (ser u) = nfirstn se ser0.
Proof.
  intros L0 H0.
  assert (forall s1 rem, nlen ser0 <= nlen s1 -> nfirstn (nlen ser0) s1 = ser0 ->
            with_query_and_fragment ovr CUrlParser st se (nlen ser0) (nlen ser0) (nlen ser0) HI_None None (nlen ser0) s1 rem = POk u ->
            scheme_end u = se /\ nfirstn se (ser u) = nfirstn se ser0) as Hw0.
  { intros s1 rem Lp Pp H. destruct (wqf_keep _ _ _ _ _ _ _ _ _ _ _ _ H ltac:(lia) Lp) as (K1 & K2 & _).
    split; [exact K1|]. rewrite K2. rewrite <- (nfirstn_nfirstn se (nlen ser0) s1) by lia. rewrite Pp. reflexivity. }
  destruct (parse_non_special_case dbg hp hpo hd ovr CUrlParser st se ser0 l u H0)
    as [rm _ Ha | r s hh rem _ _ Hp Hw | _ _ Hw].
  - destruct (ads_bk st se ser0 rm u L0 Ha) as (A & B & _). split; assumption.
  - assert (PInvQ (nlen ser0) ser0 (ser0 ++ [47])) as I1 by (apply pinvq_app; [reflexivity | apply pinvq_start | reflexivity]).
    pose proof (pinvq_parse_path dbg (nlen ser0) ser0 eq_refl _ _ _ _ _ _ _ _ Hp I1) as I2.
    exact (Hw0 s rem (pinvq_len (nlen ser0) ser0 eq_refl s I2) (proj1 I2) Hw).
  - destruct (cbb_path_shape l ser0) as (x & Ex & _). rewrite Ex in Hw.
    eapply Hw0; [|apply nfirstn_app_exact | exact Hw]. rewrite nlen_app. lia.
Qed.

(* a record that keeps the serialization of a well-formed base (with '/' behind "scheme:") beyond that '/' *)
Lemma base_sl_pre b s a : sl1 b -> agree_pre a (ser b) s -> scheme_end b + 1 < a -> nnth s (scheme_end b + 1) = Some 47.
Proof. intros Hs Hpre Ha. rewrite (pre_nnth a _ _ _ Hpre Ha). exact Hs. Qed.

(* the '/' lies in front of the end of the path *)
Lemma sl_lt_path_end b : wf_b b = true -> sl1 b -> scheme_end b + 1 < path_end b.
Proof.
  intros W Hs. pose proof (wf_se_lt_ps b W) as L1. destruct (wf_ps_le_path_end b W) as [L2 L3].
  destruct (N.eq_dec (path_end b) (scheme_end b + 1)) as [E|E]; [|lia]. exfalso.
  unfold sl1 in Hs. rewrite <- E in Hs. pose proof (wf_qf_facts b W) as QF.
  pose proof (qf_q QF) as Q1. pose proof (qf_f QF) as Q2. unfold path_end in Hs.
  destruct (query_start b) as [q|].
  - destruct Q1 as (_ & Q1 & _). apply byte_eqb_nnth in Q1. congruence.
  - destruct (fragment_start b) as [f|].
    + destruct Q2 as (_ & Q2 & _). apply byte_eqb_nnth in Q2. congruence.
    + apply nnth_lt in Hs. lia.
Qed.

Lemma cut_fragment_bk b : wf_b b = true -> sl1 b -> sl1 (url_with b (b_before_fragment b) (query_start b) None).
Proof.
  intros W Hs. unfold sl1, url_with. cbn [ser scheme_end]. pose proof (sl_lt_path_end b W Hs) as L.
  unfold b_before_fragment. destruct (fragment_start b) as [f|] eqn:Ef; [|exact Hs].
  destruct (bf_len b f W Ef) as [Lf Hpe]. rewrite nnth_nfirstn by lia. exact Hs.
Qed.

Lemma fragment_only_bk b l u : wf_b b = true -> sl1 b -> fragment_only b l = POk u ->
  scheme_end u = scheme_end b /\ nfirstn (scheme_end b) (ser u) = nfirstn (scheme_end b) (ser b) /\ sl1 u.
Proof.
  intros W Hs. unfold fragment_only. cbv zeta. intros H. pb H fs Hfs. inversion H; subst u. clear H.
  cbn [scheme_end ser]. unfold sl1. cbn [scheme_end ser]. rewrite parse_fragment_text. rewrite <- app_assoc.
  pose proof (sl_lt_path_end b W Hs) as L. destruct (wf_ps_le_path_end b W) as [L2 L3].
  destruct (bf_path_end b W) as (B1 & B2 & _).
  split; [reflexivity|]. split.
  - rewrite nfirstn_app_le by lia. apply (pre_firstn _ _ _ _ B1). lia.
  - rewrite nnth_app_lt by lia. exact (base_sl_pre b _ _ Hs B1 L).
Qed.

Lemma query_ref_bk b st se0 l s qs fs : wf_b b = true -> sl1 b ->
  parse_query_and_fragment ovr CUrlParser st se0 (b_before_query b) l = POk (s, qs, fs) ->
  nfirstn (scheme_end b) s = nfirstn (scheme_end b) (ser b) /\ nnth s (scheme_end b + 1) = Some 47.
Proof.
  intros W Hs H. destruct (bq_shape b W) as (Ebq & P1 & P2). pose proof (sl_lt_path_end b W Hs) as L.
  assert (nlen (b_before_query b) = path_end b) as Lbq by (rewrite Ebq; apply nlen_nfirstn; exact P2).
  split.
  - rewrite (pqf_keep_pre _ _ _ _ _ _ _ _ (scheme_end b) H) by lia. rewrite Ebq. apply nfirstn_nfirstn. lia.
  - apply (pqf_keep _ _ _ _ _ _ _ _ _ _ H). rewrite Ebq. rewrite nnth_nfirstn by lia. exact Hs.
Qed.

(* a new path behind the front of the base: s keeps the base up to path_start and has '/' there *)
Lemma base_path_bk st b s rem u : wf_b b = true -> sl1 b ->
  agree_pre (path_start b) (ser b) s -> nnth s (path_start b) = Some 47 ->
  with_query_and_fragment ovr CUrlParser st (scheme_end b) (username_end b) (host_start b) (host_end b)
    (hosti b) (port b) (path_start b) s rem = POk u ->
  scheme_end u = scheme_end b /\ nfirstn (scheme_end b) (ser u) = nfirstn (scheme_end b) (ser b) /\ sl1 u.
Proof.
  intros W Hs Hpre H47 H. pose proof (wf_se_lt_ps b W) as L1. pose proof (nnth_lt _ _ _ H47) as L2.
  destruct (wqf_keep _ _ _ _ _ _ _ _ _ _ _ _ H ltac:(lia) ltac:(lia)) as (K1 & K2 & K3).
  split; [exact K1|]. split.
  - rewrite K2. apply (pre_firstn _ _ _ _ Hpre). lia.
  - unfold sl1. rewrite K1. apply K3.
    destruct (N.eq_dec (path_start b) (scheme_end b + 1)) as [E|E]; [rewrite <- E; exact H47|].
    apply (base_sl_pre b s (path_start b) Hs Hpre). lia.
Qed.

(* the two arms of a relative reference that write a new path keep the base up to path_start and have '/' there *)
Lemma rel_slash_front st b r s hh rem : wf_b b = true -> st_is_file st = false ->
  parse_path dbg CUrlParser st true (path_start b) (nfirstn (path_start b) (ser b) ++ [47]) r = POk (s, hh, rem) ->
  agree_pre (path_start b) (ser b) s /\ path_start b + 1 <= nlen s /\ nnth s (path_start b) = Some 47.
Proof.
  intros W Hnf Hp. pose proof (path_start_le_len b W) as PL.
  assert (nlen (nfirstn (path_start b) (ser b)) = path_start b) as La by (apply nlen_nfirstn; exact PL).
  set (P0 := nfirstn (path_start b) (ser b)) in *.
  assert (path_start b + 1 <= nlen (P0 ++ [47])) as G1 by (rewrite nlen_app, La; change (nlen [47]) with 1; lia).
  assert (nnth (P0 ++ [47]) (path_start b) = Some 47) as G2 by (rewrite <- La; apply nnth_last).
  assert (forallb no_qh (nskipn (path_start b) (P0 ++ [47])) = true) as G3
    by (rewrite <- La; rewrite nskipn_app_exact; reflexivity).
  destruct (parse_path_shape dbg st true (path_start b) (P0 ++ [47]) r s hh rem Hnf G1 G2 G3 Hp) as (A & B & C & _).
  split; [|split; assumption].
  eapply agree_pre_trans; [apply agree_pre_nfirstn; exact PL | eapply agree_pre_le; [exact A | lia]].
Qed.

Lemma rel_path_front st b l s1 x s3 hh rem : wf_b b = true -> st_is_file st = false -> sl1 b ->
  inp_is_empty l = false -> pop_path st (path_start b) (b_before_query b) = POk s1 ->
  parse_path dbg CUrlParser st true (path_start b)
    (if (nlen s1 =? path_start b) && (st_is_special (scheme_type_of (b_scheme b)) || negb (inp_is_empty l))
     then s1 ++ [47] else s1) x = POk (s3, hh, rem) ->
  agree_pre (path_start b) (ser b) s3 /\ path_start b + 1 <= nlen s3 /\ nnth s3 (path_start b) = Some 47.
Proof.
  intros W Hnf Hs He Hs1 Hp.
  destruct (pop_base_shape hp hpo st b l s1 W Hnf Hs He Hs1) as (J1 & J2 & J3 & J4).
  destruct (parse_path_shape dbg st true (path_start b) _ x s3 hh rem Hnf J2 J3 J4 Hp) as (A & B & C & _).
  split; [|split; assumption].
  eapply agree_pre_trans; [exact J1 | eapply agree_pre_le; [exact A | lia]].
Qed.

Theorem parse_relative_bk st b l u : wf_b b = true -> sl1 b -> st_is_file st = false ->
  parse_relative dbg hp hpo hd ovr CUrlParser st b l = POk u ->
  scheme_end u = scheme_end b /\ nfirstn (scheme_end b) (ser u) = nfirstn (scheme_end b) (ser b) /\ sl1 u.
Proof.
  intros W Hs Hnf H. destruct (wf_scheme_facts b W) as (S1 & S2 & S3).
  destruct (parse_relative_case dbg hp hpo hd ovr CUrlParser st b l u H)
    as [-> | s qs fs Hq -> | Hf | x Ha | r s hh rem Hp Hw | s1 x s3 hh rem He Hs1 Hp Hw].
  - split; [reflexivity|]. split; [|apply cut_fragment_bk; assumption].
    cbn [ser url_with]. pose proof (wf_se_lt_ps b W) as L1. destruct (wf_ps_le_path_end b W) as [L2 L3].
    destruct (bf_path_end b W) as (B1 & _ & _). apply (pre_firstn _ _ _ _ B1). lia.
  - destruct (query_ref_bk b st _ l s qs fs W Hs Hq) as [A B]. split; [reflexivity|]. split; [exact A | exact B].
  - exact (fragment_only_bk b l u W Hs Hf).
  - assert (nlen (nfirstn (scheme_end b + 1) (ser b)) = scheme_end b + 1) as L1 by (apply nlen_nfirstn; lia).
    destruct (ads_bk st _ _ x u L1 Ha) as (A & B & C). split; [exact A|]. split; [|exact C].
    rewrite B. apply nfirstn_nfirstn. lia.
  - destruct (rel_slash_front st b r s hh rem W Hnf Hp) as (A & _ & C).
    exact (base_path_bk st b s rem u W Hs A C Hw).
  - destruct (rel_path_front st b l s1 x s3 hh rem W Hnf Hs He Hs1 Hp) as (A & _ & C).
    exact (base_path_bk st b s3 rem u W Hs A C Hw).
Qed.

(* the file states: "file:/" in every result *)
Lemma file_css_sl s : nfirstn 7 s = s_file_css -> nnth s 5 = Some 47.
Proof. intros H. rewrite (file_pre_bytes s 5 H) by lia. reflexivity. Qed.

Lemma file_tail_bk st s he hs hi rem s4 qs fs :
  parse_query_and_fragment ovr CUrlParser st 4 s rem = POk (s4, qs, fs) -> nfirstn 7 s = s_file_css ->
  sl1 (file_url s4 hs he hi qs fs).
Proof.
  intros H P7. unfold sl1, file_url. cbn [ser scheme_end]. change (4 + 1) with 5.
  exact (pqf_keep _ _ _ _ _ _ _ _ _ _ H (file_css_sl s P7)).
Qed.

Lemma pinvq_file_pre he pre s : 7 <= he -> nlen pre = he -> nfirstn 7 pre = s_file_css -> PInvQ he pre s -> nfirstn 7 s = s_file_css.
Proof. intros L Lp P7 [I _]. rewrite <- (nfirstn_nfirstn 7 he s) by exact L. rewrite I. exact P7. Qed.

(* a file reference that shortens the path of the base keeps the base up to path_start and has '/' there *)
Lemma file_shorten_front b l s1 s2 hh rem : wf_b b = true ->
  shorten_path STFile (path_start b) (b_before_query b) = POk s1 ->
  parse_path dbg CUrlParser STFile true (path_start b) s1 l = POk (s2, hh, rem) ->
  agree_pre (path_start b) (ser b) s2 /\ path_start b + 1 <= nlen s2 /\ nnth s2 (path_start b) = Some 47.
Proof.
  intros Wb Hs1 Hp.
  destruct (bq_shape b Wb) as (Ebq & P1 & P2). pose proof (path_start_le_len b Wb) as PL.
  pose proof (qf_facts_of b Wb) as (_ & _ & _ & Q4 & _).
  assert (nlen (nfirstn (path_start b) (ser b)) = path_start b) as Lp by (apply nlen_nfirstn; exact PL).
  assert (PInv (path_start b) (path_start b) (nfirstn (path_start b) (ser b)) (b_before_query b)) as I0.
  { rewrite Ebq. split; [apply nfirstn_nfirstn; exact P1|].
    replace (path_end b) with (path_start b + (path_end b - path_start b)) by lia.
    rewrite nskipn_nfirstn_comm. exact Q4. }
  pose proof (pinv_shorten_path (path_start b) (path_start b) (nfirstn (path_start b) (ser b))
                (N.le_refl _) ltac:(lia) Lp STFile _ _ Hs1 I0) as I1.
  pose proof (pinv_len _ _ _ (N.le_refl _) ltac:(lia) Lp s1 I1) as L1. destruct I1 as [J1 J2].
  destruct (parse_path_shape_file dbg true (path_start b) s1 l s2 hh rem L1 J2 Hp) as (A & B & C & _).
  split; [|split; assumption]. eapply agree_pre_trans; [exact J1 | exact A].
Qed.

Theorem parse_file_bk st base_file l u :
  match base_file with Some b => wf_b b = true /\ sl1 b | None => True end ->
  parse_file dbg hp hd ovr CUrlParser st base_file l = POk u -> sl1 u.
Proof.
  intros Hb H.
  destruct (parse_file_case dbg hp hd ovr CUrlParser st base_file l u H)
    as [an ser1 flag hi remaining ser2 hh rem2 ser4 qs fs Ha Hb2 Hc
       | ser1 he hi ser2 hh rem ser3 qs fs F Hp Hq ->
       | b -> -> | b s qs fs -> Hq -> | b -> Hf | b s1 s2 hh rem -> Hs1 Hp Hw
       | s2 hh rem s3 qs fs Hp Hq ->].
  - (* "//" : file host *)
    destruct (pfh_pre hp hd _ _ _ _ _ _ Ha) as (t & ->).
    assert (exists P, ser2 = (s_file_css ++ t) ++ P) as (P & ->).
    { destruct flag.
      - destruct (parse_path_start_clean dbg CUrlParser STFile _ _ _ _ _ _ Hb2) as (P & E & _). exists P. exact E.
      - assert (PInvQ (nlen (s_file_css ++ t)) (s_file_css ++ t) ((s_file_css ++ t) ++ [47])) as I1
          by (apply pinvq_app; [reflexivity | apply pinvq_start | reflexivity]).
        destruct (pinvq_split _ _ (pinvq_parse_path dbg _ _ eq_refl _ _ _ _ _ _ _ _ Hb2 I1)) as (P & E & _). exists P. exact E. }
    assert (nfirstn 7 ((s_file_css ++ t) ++ P) = s_file_css) as P7 by (rewrite <- app_assoc; apply file_css_pre).
    destruct Hc as [(_ & Hc & ->)|(_ & Hc & ->)].
    + apply (file_tail_bk st _ _ _ _ rem2 ser4 qs fs Hc). rewrite P7. apply file_css_pre.
    + exact (file_tail_bk st _ _ _ _ rem2 ser4 qs fs Hc P7).
  - (* a single slash *)
    destruct (file_front_pq base_file ser1 he hi F) as (H7 & Hle & P7 & Hpq).
    assert (nlen (nfirstn he ser1) = he) as Lp by (apply nlen_nfirstn; exact Hle).
    assert (PInvQ he (nfirstn he ser1) ser1) as I1 by (split; [reflexivity | exact Hpq]).
    pose proof (pinvq_parse_path dbg he _ Lp _ _ _ _ _ _ _ _ Hp I1) as I2.
    apply (file_tail_bk st ser2 _ _ _ rem ser3 qs fs Hq).
    apply (pinvq_file_pre he (nfirstn he ser1) ser2 H7 Lp); [|exact I2].
    rewrite nfirstn_nfirstn by exact H7. exact P7.
  - destruct Hb as (Wb & Sb). apply cut_fragment_bk; assumption.
  - destruct Hb as (Wb & Sb). exact (proj2 (query_ref_bk b st _ l s qs fs Wb Sb Hq)).
  - destruct Hb as (Wb & Sb). exact (proj2 (proj2 (fragment_only_bk b l u Wb Sb Hf))).
  - destruct Hb as (Wb & Sb). destruct (file_shorten_front b l s1 s2 hh rem Wb Hs1 Hp) as (A & _ & C).
    exact (proj2 (proj2 (base_path_bk STFile b s2 rem u Wb Sb A C Hw))).
  - assert (PInvQ 7 s_file_css (s_file_css ++ [47])) as I1.
    { apply pinvq_app; [reflexivity | exact (pinvq_start s_file_css) | reflexivity]. }
    pose proof (pinvq_parse_path dbg 7 s_file_css eq_refl _ _ _ _ _ _ _ _ Hp I1) as I2.
    apply (file_tail_bk STFile s2 _ _ _ rem s3 qs fs Hq). exact (proj1 I2).
Qed.

Lemma b_scheme_len b : wf_b b = true -> nlen (b_scheme b) = scheme_end b.
Proof.
  intros W. pose proof (wf_se_lt_ps b W) as L1. pose proof (path_start_le_len b W) as L2.
  unfold b_scheme. apply nlen_nfirstn. lia.
Qed.

Theorem parse_url_bk base input u :
  match base with Some b => wf_b b = true /\ bk b | None => True end ->
  parse_url dbg hp hpo hd ovr base input = POk u -> bk u.
Proof.
  intros Hb H.
  destruct (parse_url_case dbg hp hpo hd ovr base input u H)
    as [b l -> Hf | bf l Hbf Hf | sch l0 l _ _ Ha | b l -> Ef Hc Hr | sch l _ Est Hn].
  - destruct Hb as [W K]. intros Hs. rewrite (fragment_only_b_scheme b l u W Hf) in Hs.
    exact (proj2 (proj2 (fragment_only_bk b l u W (K Hs) Hf))).
  - intros _. eapply parse_file_bk; [|exact Hf]. destruct bf as [b|]; [|exact I].
    destruct Hbf as [-> Eb]. destruct Hb as [W K]. split; [exact W|]. apply K. rewrite Eb. reflexivity.
  - intros _. refine (proj2 (proj2 (ads_bk _ _ _ l u _ Ha))). rewrite nlen_app. reflexivity.
  - destruct Hb as [W K]. intros _. refine (proj2 (proj2 (parse_relative_bk _ b l u W _ Ef Hr))).
    destruct Hc as [Hc|Hc]; [apply K; rewrite Hc; reflexivity|].
    rewrite (cannot_be_a_base_eval b W) in Hc. injection Hc as Hc. apply negb_false_iff, byte_eqb_nnth in Hc. exact Hc.
  - assert (nlen (sch ++ [58]) = nlen sch + 1) as L0 by (rewrite nlen_app; reflexivity).
    destruct (pns_bk _ _ _ l u L0 Hn) as (K1 & K2). intros Hs. exfalso.
    unfold b_scheme in Hs. rewrite K1, K2, nfirstn_app_exact, Est in Hs. discriminate.
Qed.

End Arms.

(* the result of parse_url is a possible base *)
Theorem parse_url_base_ok dbg hp hpo hd ovr base input u : HostWf hp hpo hd ->
  match base with Some b => base_ok b = true /\ host_text_ok b | None => True end ->
  parse_url dbg hp hpo hd ovr base input = POk u -> base_ok u = true /\ host_text_ok u.
Proof.
  intros HW Hb Hp. destruct (parse_url_wf_all dbg hp hpo hd ovr HW base input u Hb Hp) as [W HT].
  split; [|exact HT]. apply base_ok_iff. split; [exact W|].
  apply (parse_url_bk dbg hp hpo hd ovr base input u); [|exact Hp].
  destruct base as [b|]; [|exact I]. destruct Hb as [Hb _]. apply base_ok_iff. exact Hb.
Qed.
