(* Proofs/C02_FileSet.v - L2 on canonical file records (FileCanon) for the operations that only replace query and
   fragment: Url::set_fragment, Url::set_query, a Url::query_pairs_mut session, and joins with an empty,
   fragment-only or query-led reference (tail_ref) against a file base (the three base arms of parse_file that do
   not touch the path).  All through the frame  pre [?q] [#f]  (qf_url) of C02_SetQF / C02_JoinTail / C02_Form. *)
From RU Require Import Proofs.C15_Ser.
From RU Require Import Base.Prelude Gen.Tables Model.HostT Model.UrlRecord Model.Parser Model.Setters
  Model.QueryPairs Proofs.ListN Proofs.C02_Parts Proofs.C02_Opaque Proofs.C02_Path Proofs.C02_PathSp Proofs.C02_Reach
  Proofs.C02_AuthParts Proofs.C02_SetQF Proofs.C02_Canon Proofs.C02_JoinTail Proofs.C02_JoinPath Proofs.C02_Ovr
  Proofs.C02_Form Proofs.C02_File Proofs.C02_FileCanon Proofs.C02_FileParse.
Open Scope N_scope.
Open Scope list_scope.

Section FileSet.
Variable dbg : bool.
Variable hp hpo : list N -> result host.
Variable hd : host -> list N.
Hypothesis HRT : HostRT hp hpo hd.

Notation FileCanon := (FileCanon hp hd).
Notation file_ok := (file_ok hp hd).
Notation file_curl := (file_curl hd).
Notation file_pre := (file_pre hd).
Notation file_front := (file_front hd).

(* query and fragment of a canonical file record can be replaced *)
Lemma file_repl ho segs last q0 f0 q f : file_ok ho segs last q0 f0 ->
  opt_clean T_SPECIAL_QUERY q -> opt_clean T_FRAGMENT f ->
  opt_le (qf_qs (nlen (file_pre ho (path_text segs last))) q) U32_MAX_P ->
  opt_le (qf_fs (nlen (file_pre ho (path_text segs last))) q f) U32_MAX_P ->
  FileCanon (file_curl ho (path_text segs last) q f).
Proof.
  intros K Cq Cf Bq Bf. destruct K as [Kh Ksegs Klast Kfirst _ _ Kb1 _ _].
  apply FileCanon_intro. constructor; assumption.
Qed.

Lemma file_repl_len ho segs last q0 f0 q f : file_ok ho segs last q0 f0 ->
  opt_clean T_SPECIAL_QUERY q -> opt_clean T_FRAGMENT f ->
  nlen (ser (file_curl ho (path_text segs last) q f)) <= U32_MAX_P ->
  FileCanon (file_curl ho (path_text segs last) q f).
Proof.
  intros K Cq Cf Hb. unfold C02_File.file_curl, qf_url in Hb. cbn [ser] in Hb.
  destruct (qf_bounds _ _ _ _ Hb) as [Bq Bf]. exact (file_repl ho segs last q0 f0 q f K Cq Cf Bq Bf).
Qed.

Lemma file_pre_sch ho T : nfirstn 4 (file_pre ho T) = s_file /\ 4 <= nlen (file_pre ho T).
Proof.
  unfold C02_File.file_pre, C02_File.file_front, s_file_css, s_css. rewrite <- !app_assoc. split.
  - change 4 with (nlen s_file). apply nfirstn_app_len.
  - rewrite nlen_app. change (nlen s_file) with 4. lia.
Qed.

Lemma file_curl_cbb ho T q f : cannot_be_a_base (file_curl ho T q f) = Some false.
Proof.
  unfold cannot_be_a_base, u_slice_from, C02_File.file_curl, qf_url. cbn [ser scheme_end].
  unfold C02_File.file_pre, C02_File.file_front, s_file_css, s_css. rewrite <- !app_assoc.
  change (s_file ++ [58; 47; 47] ++ fhost_text hd ho ++ T ++ qf_text q f)
    with ((s_file ++ [58]) ++ 47 :: 47 :: fhost_text hd ho ++ T ++ qf_text q f).
  change (4 + 1) with (nlen (s_file ++ [58])).
  rewrite slice_from_o_some by (rewrite (nlen_app (s_file ++ [58])); lia). rewrite nskipn_app_len. reflexivity.
Qed.

(* Url::set_fragment *)
Theorem set_fragment_File u fr u' : FileCanon u -> usv_opt fr ->
  set_fragment dbg u fr = Some u' -> nlen (ser u') <= U32_MAX_P -> FileCanon u'.
Proof.
  intros [ho segs last q f K] Hfr. unfold C02_File.file_curl. destruct fr as [x|].
  - rewrite set_fragment_qf_some by exact Hfr. intros E Hb. inversion E; subst u'.
    apply (file_repl_len ho segs last q f); [exact K | exact (fk_q _ _ _ _ _ _ _ K) | exact (frag_of_clean x Hfr) | exact Hb].
  - rewrite (set_fragment_qf_none dbg _ _ _ _ _ _ _ _ q f false) by (apply file_curl_cbb).
    intros E Hb. inversion E; subst u'. cbn [andb] in *.
    apply (file_repl_len ho segs last q f); [exact K | exact (fk_q _ _ _ _ _ _ _ K) | exact I | exact Hb].
Qed.

(* Url::set_query *)
Theorem set_query_File u qr u' : FileCanon u -> usv_opt qr ->
  set_query dbg u qr = Some u' -> nlen (ser u') <= U32_MAX_P -> FileCanon u'.
Proof.
  intros [ho segs last q f K] Hqr. unfold C02_File.file_curl.
  destruct (file_pre_sch ho (path_text segs last)) as [S1 S2]. destruct qr as [x|].
  - rewrite (set_query_qf_some dbg _ _ _ _ _ _ _ _ s_file S1 S2 q f x Hqr).
    intros E Hb. inversion E; subst u'.
    apply (file_repl_len ho segs last q f); [exact K | | exact (fk_f _ _ _ _ _ _ _ K) | exact Hb].
    exact (squery_of_clean STFile x Hqr).
  - rewrite (set_query_qf_none dbg _ _ _ _ _ _ _ _ q f false) by (apply file_curl_cbb).
    intros E Hb. inversion E; subst u'. cbn [andb] in *.
    apply (file_repl_len ho segs last q f); [exact K | exact I | exact (fk_f _ _ _ _ _ _ _ K) | exact Hb].
Qed.

(* a Url::query_pairs_mut session *)
Theorem qpm_File u ops u' : FileCanon u -> Forall op_ok ops ->
  query_pairs_session dbg u ops = Some u' -> nlen (ser u') <= U32_MAX_P -> FileCanon u'.
Proof.
  intros C Hops. destruct (FileCanon_fixpoint dbg hp hpo hd HRT u C) as (_ & Hwf & Ha).
  destruct C as [ho segs last q f K]. unfold C02_File.file_curl in *.
  destruct (qpm_session_qf dbg _ _ _ _ _ _ _ _ q f ops Hwf Ha Hops) as (nq & E & HP). rewrite E.
  intros E' Hb. inversion E'; subst u'. clear E'.
  apply (file_repl_len ho segs last q f); [exact K | | exact (fk_f _ _ _ _ _ _ _ K) | exact Hb].
  exact (new_query_clean STFile q nq (fk_q _ _ _ _ _ _ _ K) HP).
Qed.

(* joins with an empty, fragment-only or query-led reference against a file base *)
Lemma fragment_only_File b l u : FileCanon b -> usv_list l -> fragment_only b l = POk u -> FileCanon u.
Proof.
  intros [ho segs last q0 f0 K] Hl E. unfold C02_File.file_curl in E.
  destruct (fragment_only_qf _ _ _ _ _ _ _ _ q0 f0 l u Hl E) as (F & -> & CF & BF).
  exact (file_repl ho segs last q0 f0 q0 (Some F) K (fk_q _ _ _ _ _ _ _ K) CF (fk_bq _ _ _ _ _ _ _ K) BF).
Qed.

Lemma file_tail_arm ovr ho segs last q0 f0 l u : file_ok ho segs last q0 f0 -> usv_list l ->
  tail_arm ovr STFile (file_curl ho (path_text segs last) q0 f0) l = POk u -> FileCanon u.
Proof.
  intros K. apply (tail_arm_frame (file_pre ho (path_text segs last)) 4 7 7 (nlen (file_front ho)) (fhost_hi ho) None
                     (nlen (file_front ho)) FileCanon ovr STFile q0 f0).
  - exact (pqf_out_g ovr STFile 4 (file_pre ho (path_text segs last))).
  - exact (fk_q _ _ _ _ _ _ _ K).
  - exact (fk_bq _ _ _ _ _ _ _ K).
  - intros q f. exact (file_repl ho segs last q0 f0 q f K).
Qed.

Theorem join_tail_File ovr b input u : FileCanon b -> usv_list input -> tail_ref input = true ->
  parse_url dbg hp hpo hd ovr (Some b) input = POk u -> FileCanon u.
Proof.
  intros Cb Hu Ht. pose proof (usv_trim is_c0_or_space input Hu : usv_list (input_new_trim_c0 input)) as Hl.
  unfold tail_ref in Ht. unfold parse_url. set (l := input_new_trim_c0 input) in *.
  destruct (parse_scheme CUrlParser l) as [[s r]|]; [discriminate|].
  destruct (inp_starts_with_char 35 l); [exact (fragment_only_File b l u Cb Hl)|].
  destruct Cb as [ho segs last q0 f0 K].
  destruct (file_pre_sch ho (path_text segs last)) as [S1 S2].
  rewrite file_curl_cbb. unfold C02_File.file_curl at 1.
  rewrite (b_scheme_qf _ _ _ _ _ _ _ _ q0 f0 s_file S1 S2). change (scheme_type_of s_file) with STFile. cbn [st_is_file].
  rewrite parse_file_tail by exact Ht. exact (file_tail_arm ovr ho segs last q0 f0 l u K Hl).
Qed.

(* a canonical file record is a file record outside Known_file_drive *)
Lemma FileCanon_is_file u : FileCanon u -> is_file u = true.
Proof. intros [ho segs last q f K]. apply file_curl_is_file. Qed.

Lemma FileCanon_not_drive u : FileCanon u -> Known_file_drive u = false.
Proof.
  intros [ho segs last q f K]. destruct K as [_ Ksegs Klast _ _ _ _ _ _].
  rewrite (known_drive_curl hd ho segs last q f (good_segs_sp_no_slash segs (fsegs_ok_sp segs Ksegs))
             (good_seg_sp_no_slash last (fseg_ok_sp last Klast))).
  rewrite forallb_fseg_ok in Ksegs. apply andb_true_iff in Ksegs. destruct Ksegs as [_ Ksegs]. apply negb_true_iff in Ksegs.
  rewrite Ksegs, (fseg_ok_like last Klast). reflexivity.
Qed.

End FileSet.
