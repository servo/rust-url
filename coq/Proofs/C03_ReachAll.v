(* Proofs/C03_ReachAll.v - the invariant wfh = wf_b /\ host_text_ok along ALL 19 mutators of C02's
   quantifier (C02_Reach.op / apply_op: the nine Url setters, set_ip_host, path_segments_mut sessions and the
   nine quirks setters), for successful and for failing calls, outside a COMPUTABLE exclusion excl03 u o u'
   (a boolean on the record before, the call and the record after):
     - F-C03-5  a host setter on a record that carries the "/." marker;
     - F-C02-4  a host setter that leaves an empty host in front of a stored port;
     - F-C02-2  set_host(None) on a path that starts with "//";
     - F-C02-3  set_path with '?' / '#' on an opaque path;
     - F-C02-8 / F-C03-5  a path setter on an authority-less record whose result starts with "//" without the
       marker, or does not start with "//" behind the marker (path_bad; exact: the result is then never wf_b);
     - auth_end_b u = false for set_path / quirks set_pathname: the text in front of the path of a special
       non-file URL ends in '/' (no reachable record is known to be in this class: it is an invariant that
       wf_b does not carry; C03_AuthEnd.v proves its preservation).
   F-C06-5 (set_host(None) on an empty path at the end of the serialization) is NOT excluded: the frame fails
   there, the invariant does not.
   What such a call does to the record is said once (step_cases; keep_cases for the 15 mutators other than the host
   setters, which needs nothing of the host functions): the record is unchanged, or the call is of one of four kinds
   that keep the host (keep_kind) or of two that write or remove it (host_kind), each kind with what it does to
   scheme(), host_str(), port() and path().  The invariants of C03 (wfh here; PN, HE, AS, KT, SP in the files that
   define them) are case analyses over the kinds. *)
From Coq Require Import String.
From RU Require Import Base.Prelude Model.HostT Model.UrlRecord Model.Parser Model.Setters Model.WF Proofs.ListN Proofs.C02_Reach
  Proofs.C03_WF Proofs.C06_List Proofs.C06_WFI Proofs.C06_Tail Proofs.C06_Steps Proofs.C06_Suffix Proofs.C06_Front
  Proofs.C06_Atomic Proofs.C06_FragQuery Proofs.C06_Port Proofs.C06_Cred Proofs.C06_Scheme Proofs.C06_HostNone Proofs.C06_Host
  Proofs.C06_Segments Proofs.C06_Path Proofs.C06_PathNoAuth Proofs.C06_Main Proofs.C06_PathMore Proofs.C06_Quirks
  Proofs.C05_CompSteps Proofs.C03_ReachParts.
Open Scope N_scope.
Open Scope list_scope.

Lemma omf_some {A B} (r : option (A * B)) a : option_map fst r = Some a -> exists b, r = Some (a, b).
Proof. destruct r as [[a0 b0]|]; cbn; intros H; [inversion H; subst; eauto | discriminate]. Qed.

Definition auth_end_b (u : url) : bool :=
  let st := scheme_type_of (nfirstn (scheme_end u) (ser u)) in
  negb (st_is_special st && negb (st_is_file st) && ends_with_byte 47 (nfirstn (path_start u) (ser u))).

Lemma auth_end_b_ok u : auth_end_b u = true <-> auth_end_ok u.
Proof.
  unfold auth_end_b, auth_end_ok. cbv zeta.
  destruct (st_is_special (scheme_type_of (nfirstn (scheme_end u) (ser u))));
    destruct (st_is_file (scheme_type_of (nfirstn (scheme_end u) (ser u))));
    destruct (ends_with_byte 47 (nfirstn (path_start u) (ser u))); cbn; split; intros H; try reflexivity; try discriminate;
    try (intros; try reflexivity; discriminate).
  discriminate (H eq_refl eq_refl).
Qed.

(* a path setter on an authority-less, non-opaque record: the result starts with "//" iff the marker is there *)
Definition path_bad (u u' : url) : bool :=
  negb (has_authority_b u) && negb (is_opaque_b u)
  && negb (Bool.eqb (path_starts_with_2slash u') (path_start u =? scheme_end u + 3)).

(* a host setter: marker (F-C03-5), or an empty new host in front of a stored port (F-C02-4) *)
Definition host_bad (u u' : url) : bool :=
  has_marker u || (has_authority_b u && hi_eqb (hosti u') HI_None && has_some (port u)).

Definition excl03 (u : url) (o : op) (u' : url) : bool :=
  match o with
  | OSetHost None => has_host u && path_starts_with_2slash u
  | OSetHost (Some _) | OSetIpHost _ | OQHost _ | OQHostname _ => host_bad u u'
  | OSetPath p => negb (auth_end_b u) || (is_opaque_b u && negb (forallb no_qh p)) || path_bad u u'
  | OQPathname _ => negb (auth_end_b u) || path_bad u u'
  | OPathSegments _ => path_bad u u'
  | _ => false
  end.

Lemma hi_eqb_none hi : hi_eqb hi HI_None = true <-> hi = HI_None.
Proof. destruct hi; cbn; split; intros H; try reflexivity; discriminate. Qed.

(* without authority the path starts right behind "scheme:" unless the marker is there *)
Lemma noauth_no_marker u : wf_b u = true -> has_authority_b u = false -> path_start u <> scheme_end u + 3 ->
  path_start u = scheme_end u + 1.
Proof.
  intros W Ha Hm. destruct (nf_ps (wf_noauth_facts u W Ha)) as [X|(X & _)]; [exact X | contradiction].
Qed.

Lemma host_bad_premises u u' : wf_b u = true -> host_bad u u' = false ->
  (has_authority_b u = false -> path_start u = scheme_end u + 1)
  /\ (has_authority_b u = true -> hosti u' = HI_None -> port u = None).
Proof.
  unfold host_bad, has_marker. intros W H. apply orb_false_iff in H. destruct H as [H1 H2]. split.
  - intros Ha. rewrite Ha in H1. cbn [negb andb] in H1. apply N.eqb_neq in H1. exact (noauth_no_marker u W Ha H1).
  - intros Ha Hn. rewrite Ha in H2. apply (proj2 (hi_eqb_none _)) in Hn. rewrite Hn in H2. cbn [andb] in H2.
    destruct (port u); [discriminate | reflexivity].
Qed.

(* C06's theorems on a setter that returns a status have one shape: a call that does not succeed leaves the record *)
Lemma ok_cases (r : option (url * status)) (P : url -> Prop) u u' st :
  (exists u2 st2, r = Some (u2, st2) /\ (st2 <> SOk -> u2 = u) /\ (st2 = SOk -> P u2)) ->
  r = Some (u', st) -> u' = u \/ st = SOk /\ P u'.
Proof.
  intros (u2 & st2 & E & Herr & Hok) H. rewrite H in E. inversion E; subst u2 st2.
  destruct st; [right; exact (conj eq_refl (Hok eq_refl)) | left; apply Herr; discriminate ..].
Qed.

(* Url::set_scheme: special <-> special only, and a special target needs a host *)
Lemma set_scheme_class dbg u s u' new rem old : wf_b u = true -> set_scheme dbg u s = Some (u', SOk) ->
  parse_scheme CSetter s = Some (new, rem) -> scheme u = Some old ->
  st_is_special (scheme_type_of new) = st_is_special (scheme_type_of old)
  /\ (st_is_special (scheme_type_of new) = true -> has_host u = true).
Proof.
  intros W H Eps Hs. unfold set_scheme, input_new_no_trim in H. rewrite Eps in H.
  unfold u_scheme_type in H. rewrite Hs in H. cbn [bindo] in H.
  rewrite (has_authority_eval dbg u W) in H. cbn [bindo] in H.
  set (nst := scheme_type_of new) in *. set (ost := scheme_type_of old) in *.
  match type of H with (if ?c then _ else _) = _ => destruct c eqn:C1 end; [discriminate|].
  match type of H with (if ?c then _ else _) = _ => destruct c eqn:C2 end; [discriminate|].
  apply orb_false_iff in C1. destruct C1 as [C1 _]. apply orb_false_iff in C1. destruct C1 as [C1a C1b].
  apply orb_false_iff in C2. destruct C2 as [_ C2].
  split.
  - destruct (st_is_special nst), (st_is_special ost); cbn in C1a, C1b; try reflexivity; discriminate.
  - intros Hsp. rewrite Hsp in C2. destruct (has_host u); [reflexivity | discriminate].
Qed.

Lemma q_search_arg_ok s : usv_list s -> str_arg_ok (match s with [] => None | 63 :: r => Some r | _ => Some s end).
Proof.
  intros Ha. destruct s as [|c r]; [exact I|]. destruct (N.eq_dec c 63) as [->|Hc].
  - inversion Ha; assumption.
  - unfold str_arg_ok. destruct c as [|q]; [exact Ha|]. do 6 (destruct q as [q|q|]; try exact Ha). contradiction.
Qed.

Section Steps.
Variable dbg : bool.
Variable hp hpo : list N -> result host.
Variable hd : host -> list N.

(* what one call does to the record *)
Definition same_shp (u u' : url) : Prop :=
  scheme u' = scheme u /\ host_str u' = host_str u /\ port u' = port u.

Lemma same_front_shp u u' : same_front dbg u u' -> same_shp u u'.
Proof. intros (Es & _ & _ & Eh & Ep). exact (conj Es (conj Eh Ep)). Qed.

(* the ports the setters store: normalised against the default port of the scheme, by set_port itself or by the
   parser's port state *)
Definition port_stored (sch : list N) (np : option N) : Prop :=
  (exists p, np = norm_port sch p) \/ (exists l rem, parse_port CSetter (default_port sch) l = POk (np, rem)).

(* the two ways a path is rewritten *)
Definition path_call (u u' : url) : Prop :=
  (exists p, usv_list p /\ auth_end_ok u /\ set_path dbg u p = Some u')
  \/ (exists ops, path_segments_session dbg u ops = Some (u', SOk)).

(* a successful call of a mutator other than the four host setters:
   fragment, query, credentials | path | port | scheme *)
Inductive keep_kind (u u' : url) : Prop :=
| KK_keep : same_shp u u' -> (is_opaque_b u = false -> path u' = path u) -> keep_kind u u'
| KK_path : same_shp u u' -> path_call u u' -> keep_kind u u'
| KK_port sch : scheme u = Some sch -> scheme u' = scheme u -> host_str u' = host_str u -> path u' = path u ->
    port_stored sch (port u') -> keep_kind u u'
| KK_scheme new : scheme u' = Some new -> host_str u' = host_str u -> path u' = path u ->
    port u' = norm_port new (port u) ->
    (forall old, scheme u = Some old -> st_is_special (scheme_type_of new) = st_is_special (scheme_type_of old)) ->
    (st_is_special (scheme_type_of new) = true -> has_host u = true) -> keep_kind u u'.

Lemma keep_kind_host_str u u' : keep_kind u u' -> host_str u' = host_str u.
Proof. intros [(_ & E & _) _|(_ & E & _) _|sch _ _ E _ _|new _ E _ _ _ _]; exact E. Qed.

(* where the host value of a host setter comes from: Host::parse / parse_opaque on (a prefix of) the argument, the
   caller's IpAddr, the empty host of a file URL, the parser's host state *)
Definition host_src (sch : list N) (h : host) : Prop :=
  (exists s, (if st_is_special (scheme_type_of sch) then hp s else hpo s) = Ok h)
  \/ op_args_ok (OSetIpHost h)
  \/ (scheme_type_of sch = STFile /\ h = HDomain [])
  \/ (exists l rem, parse_host hp hpo (scheme_type_of sch) l = POk (h, rem)).

(* a successful call of a host setter on a record with a host to set or to remove *)
Inductive host_kind (u u' : url) : Prop :=
| HK_set sch h : scheme u = Some sch -> host_src sch h -> scheme u' = scheme u -> path u' = path u ->
    host_str u' = Some (if hi_some (hi_of_host h) then Some (hd h) else None) ->
    (port u' = port u \/ port_stored sch (port u')) -> host_kind u u'
| HK_none : scheme u' = scheme u -> host_str u' = Some None -> port u' = None ->
    (forall sch, scheme u = Some sch -> st_is_special (scheme_type_of sch) = true -> st_is_file (scheme_type_of sch) = true) ->
    (path_empty_at_end u = false -> path u' = path u) -> host_kind u u'.

Definition step_kind (u u' : url) : Prop := keep_kind u u' \/ host_kind u u'.

(* fragment, query, credentials, port, scheme *)
Lemma set_fragment_kind u f u' : wfh u -> set_fragment dbg u f = Some u' -> u' = u \/ wfh u' /\ keep_kind u u'.
Proof.
  intros K H. destruct (wf_all dbg hp hpo hd u K) as (A1 & _). destruct (frame_all dbg hp hpo hd u K) as (F1 & _).
  destruct (F1 f u' H) as [[S _] P]. right. split; [exact (A1 f u' H)|].
  apply KK_keep; [exact (same_front_shp u u' S)|]. intros Ho. destruct f; [exact P|].
  unfold opaque_strip_applies in P. rewrite Ho in P. exact P.
Qed.

Lemma set_query_kind u q u' : wfh u -> str_arg_ok q -> set_query dbg u q = Some u' -> u' = u \/ wfh u' /\ keep_kind u u'.
Proof.
  intros K Hq H. destruct (wf_all dbg hp hpo hd u K) as (_ & A2 & _). destruct (frame_all dbg hp hpo hd u K) as (_ & F2 & _).
  destruct (F2 q u' Hq H) as [[S _] P]. right. split; [exact (A2 q u' Hq H)|].
  apply KK_keep; [exact (same_front_shp u u' S)|]. intros Ho. destruct q; [exact P|]. rewrite Ho in P. exact P.
Qed.

Lemma set_password_kind u pw u' st : wfh u -> set_password dbg u pw = Some (u', st) -> u' = u \/ wfh u' /\ keep_kind u u'.
Proof.
  intros [W HT] H.
  destruct (ok_cases _ _ u u' st (set_password_ok dbg u pw W HT) H) as [E|(_ & W' & HT' & Es & _ & Eh & Ep & [B _] & _)];
    [left; exact E | right].
  exact (conj (conj W' HT') (KK_keep u u' (conj Es (conj Eh Ep)) (fun _ => B))).
Qed.

Lemma set_username_kind u un u' st : wfh u -> set_username dbg u un = Some (u', st) -> u' = u \/ wfh u' /\ keep_kind u u'.
Proof.
  intros [W HT] H.
  destruct (ok_cases _ _ u u' st (set_username_ok dbg u un W HT) H) as [E|(_ & W' & HT' & Es & _ & Eh & Ep & [B _] & _)];
    [left; exact E | right].
  exact (conj (conj W' HT') (KK_keep u u' (conj Es (conj Eh Ep)) (fun _ => B))).
Qed.

Lemma set_port_kind u p u' st : wfh u -> port_arg_ok p -> set_port dbg u p = Some (u', st) ->
  u' = u \/ wfh u' /\ keep_kind u u'.
Proof.
  intros [W HT] Hp H.
  destruct (ok_cases _ _ u u' st (set_port_ok dbg u p W HT Hp) H)
    as [E|(_ & W' & HT' & (Es & _ & _ & Eh) & [B _] & sch & Hs & Ep)]; [left; exact E | right].
  split; [exact (conj W' HT')|]. apply (KK_port u u' sch Hs Es Eh B). left. exists p. exact Ep.
Qed.

Lemma q_set_port_kind u v u' st : wfh u -> q_set_port dbg u v = Some (u', st) -> u' = u \/ wfh u' /\ keep_kind u u'.
Proof.
  intros [W HT] H.
  destruct (ok_cases _ _ u u' st (q_set_port_ok dbg u v W HT) H)
    as [E|(_ & W' & HT' & (Es & _ & _ & Eh) & [B _] & sch & rem & Hs & Ep)]; [left; exact E | right].
  split; [exact (conj W' HT')|]. apply (KK_port u u' sch Hs Es Eh B). right. exists (input_new_no_trim v), rem. exact Ep.
Qed.

Lemma set_scheme_kind u s u' st : wfh u -> set_scheme dbg u s = Some (u', st) -> u' = u \/ wfh u' /\ keep_kind u u'.
Proof.
  intros [W HT] H.
  destruct (ok_cases _ _ u u' st (set_scheme_ok dbg u s W HT) H)
    as [E|(-> & new & rem & Eps & W' & HT' & Es & _ & _ & Eh & [B _] & Ep)]; [left; exact E | right].
  split; [exact (conj W' HT')|]. apply (KK_scheme u u' new Es Eh B Ep).
  - intros old Hs. exact (proj1 (set_scheme_class dbg u s u' new rem old W H Eps Hs)).
  - exact (proj2 (set_scheme_class dbg u s u' new rem _ W H Eps (scheme_eval u W))).
Qed.

(* path setters, all four layouts *)
Lemma path_bad_noauth u u' : path_bad u u' = false -> noauth_slash_path u -> path_starts_with_2slash u' = false.
Proof.
  intros G (Ha & Hsl & Hnm). unfold path_bad, is_opaque_b in G. rewrite Ha, Hsl, Hnm in G. cbn [negb andb] in G.
  replace (scheme_end u + 1 =? scheme_end u + 3) with false in G by (symmetry; apply N.eqb_neq; lia).
  destruct (path_starts_with_2slash u'); [discriminate | reflexivity].
Qed.

Lemma path_bad_marker u u' : wf_b u = true -> path_bad u u' = false -> marker_path u -> path_starts_with_2slash u' = true.
Proof.
  intros W G M. destruct (marker_heads u W M) as (Hsl & _). destruct M as [Ha Em].
  unfold path_bad, is_opaque_b in G. rewrite Ha, Hsl, Em, N.eqb_refl in G. cbn [negb andb] in G.
  destruct (path_starts_with_2slash u'); [reflexivity | discriminate].
Qed.

Lemma set_path_kind u p u' : wfh u -> usv_list p -> auth_end_ok u ->
  (is_opaque_b u = true -> forallb no_qh p = true) -> path_bad u u' = false ->
  set_path dbg u p = Some u' -> u' = u \/ wfh u' /\ keep_kind u u'.
Proof.
  intros [W HT] Hp Hx Hq G H.
  assert (wf_b u' = true /\ host_text_ok u' /\ same_front dbg u u') as (W' & HT' & S).
  { destruct (path_layouts u W) as [Ha|[NA|[Ho|M]]].
    - destruct (set_path_ok dbg u p u' W HT Ha Hp Hx H) as (A & B & F & _). auto.
    - destruct (set_path_noauth_ok dbg u p u' W NA Hp H (path_bad_noauth u u' G NA)) as (A & B & F & _). auto.
    - destruct (set_path_opaque_ok dbg u p u' W Ho Hp (Hq Ho) H) as (A & B & F & _). auto.
    - destruct (set_path_marker_ok dbg u p u' W M Hp H) as [R _].
      destruct (R (path_bad_marker u u' W G M)) as (A & B & F & _). auto. }
  right. split; [exact (conj W' HT')|]. apply KK_path; [exact (same_front_shp u u' S)|]. left. exists p. auto.
Qed.

Lemma session_kind u ops u' st : wfh u -> Forall psm_op_usv ops -> path_bad u u' = false ->
  path_segments_session dbg u ops = Some (u', st) -> u' = u \/ wfh u' /\ keep_kind u u'.
Proof.
  intros [W HT] Hops G H.
  destruct st; [right | left; apply (path_segments_session_atomic dbg u ops u' _ H); discriminate ..].
  assert (wf_b u' = true /\ host_text_ok u' /\ same_front dbg u u') as (W' & HT' & S).
  { destruct (path_layouts u W) as [Ha|[NA|[Ho|M]]].
    - destruct (path_segments_session_ok dbg u ops u' W HT Ha Hops H) as (A & B & F & _). auto.
    - destruct (path_segments_session_noauth_ok dbg u ops u' W NA Hops H (path_bad_noauth u u' G NA)) as (A & B & F & _). auto.
    - exfalso. unfold path_segments_session, path_segments_mut in H. rewrite (cannot_be_a_base_eval u W) in H.
      unfold is_opaque_b in Ho. rewrite Ho in H. cbn [bindo] in H. discriminate.
    - destruct (path_segments_session_marker_ok dbg u ops u' W M Hops H) as [R _].
      destruct (R (path_bad_marker u u' W G M)) as (A & B & F & _). auto. }
  split; [exact (conj W' HT')|]. apply KK_path; [exact (same_front_shp u u' S)|]. right. exists ops. exact H.
Qed.

Lemma q_set_pathname_kind u v u' : wfh u -> usv_list v -> auth_end_ok u -> path_bad u u' = false ->
  q_set_pathname dbg u v = Some u' -> u' = u \/ wfh u' /\ keep_kind u u'.
Proof.
  intros K Hv Hx G H. pose proof K as [W _].
  destruct (q_set_pathname_eval dbg u v W) as (sch & _ & E). rewrite E in H. clear E.
  destruct (byte_eqb (ser u) (scheme_end u + 1) 47) eqn:Hsl; cbn [negb] in H; [|left; inversion H; reflexivity].
  apply (set_path_kind u _ u' K (q_pathname_arg_usv (scheme_type_of sch) (has_host u) v Hv) Hx); [|exact G | exact H].
  intros Ho. unfold is_opaque_b in Ho. rewrite Hsl in Ho. discriminate.
Qed.

(* Url::set_ip_host is given an IpAddr by the caller, not by a host parser: its display is an address text *)
Definition IpDisp : Prop := forall h, op_args_ok (OSetIpHost h) -> host_disp_ok hd h.

(* the mutators other than the host setters *)
Theorem keep_cases u o u' : wfh u -> op_args_ok o -> excl03 u o u' = false ->
  apply_op dbg hp hpo hd u o = Some u' ->
  match o with
  | OSetHost _ | OSetIpHost _ | OQHost _ | OQHostname _ => True
  | _ => u' = u \/ wfh u' /\ keep_kind u u'
  end.
Proof.
  intros K Ha G H.
  destruct o; cbn [apply_op excl03 op_args_ok] in H, G, Ha; try exact I; try (apply omf_some in H; destruct H as [st H]).
  - exact (set_fragment_kind u f u' K H).
  - exact (set_query_kind u q u' K Ha H).
  - apply orb_false_iff in G. destruct G as [G G3]. apply orb_false_iff in G. destruct G as [G1 G2].
    apply negb_false_iff in G1. apply auth_end_b_ok in G1.
    apply (set_path_kind u p u' K Ha G1); [|exact G3 | exact H].
    intros Ho. rewrite Ho in G2. cbn [andb] in G2. apply negb_false_iff in G2. exact G2.
  - exact (set_port_kind u p u' st K Ha H).
  - exact (set_password_kind u p u' st K H).
  - exact (set_username_kind u s u' st K H).
  - exact (set_scheme_kind u s u' st K H).
  - exact (session_kind u ops u' st K Ha G H).
  - unfold q_set_protocol in H. cbv zeta in H. exact (set_scheme_kind u _ u' st K H).
  - exact (set_username_kind u s u' st K H).
  - unfold q_set_password in H. exact (set_password_kind u _ u' st K H).
  - exact (q_set_port_kind u s u' st K H).
  - apply orb_false_iff in G. destruct G as [G1 G3]. apply negb_false_iff in G1. apply auth_end_b_ok in G1.
    exact (q_set_pathname_kind u s u' K Ha G1 G3 H).
  - unfold q_set_search in H. exact (set_query_kind u _ u' K (q_search_arg_ok s Ha) H).
  - unfold q_set_hash in H. exact (set_fragment_kind u _ u' K H).
Qed.

(* set_host(None): F-C02-2 is excluded, F-C06-5 is not *)
(* a record whose (empty) path is the end of the serialization, with the '/' the setter appends first *)
Lemma empty_end_with_path u : wf_b u = true -> path_empty_at_end u = true ->
  with_path u [47] = set_ser u (ser u ++ [47]).
Proof.
  intros W He. unfold path_empty_at_end in He. apply N.eqb_eq in He.
  pose proof (wf_qf_facts u W) as QF. pose proof (qf_q QF) as Q1. pose proof (qf_f QF) as Q2.
  unfold with_path, set_ser, path_end.
  destruct (query_start u) as [q|]; [lia|]. destruct (fragment_start u) as [f|]; [lia|]. cbn [option_map].
  rewrite nfirstn_all by lia. rewrite nskipn_all by lia. reflexivity.
Qed.

Lemma add_slash_scheme u : wf_b u = true -> wf_b (set_ser u (ser u ++ [47])) = true ->
  scheme (set_ser u (ser u ++ [47])) = scheme u.
Proof.
  intros W W'. rewrite (scheme_eval u W), (scheme_eval _ W'). unfold piece. cbn [pidx ser set_ser scheme_end].
  pose proof (wf_se_lt_ps u W). pose proof (path_start_le_len u W).
  rewrite N.sub_0_r. cbn [nskipn N.to_nat skipn]. rewrite nfirstn_app_le by lia. reflexivity.
Qed.

Lemma add_slash_path u : path_empty_at_end u = true ->
  path_empty_at_end (set_ser u (ser u ++ [47])) = false /\ path_starts_with_2slash (set_ser u (ser u ++ [47])) = false.
Proof.
  unfold path_empty_at_end, path_starts_with_2slash. intros He. apply N.eqb_eq in He. cbn [ser set_ser path_start]. split.
  - apply N.eqb_neq. rewrite nlen_app. change (nlen [47]) with 1. lia.
  - rewrite <- He. rewrite nskipn_app_exact. reflexivity.
Qed.

Lemma set_host_none_slash u u' : wf_b u = true -> has_host u = true -> path_empty_at_end u = true ->
  set_host dbg hp hpo hd u None = Some (u', SOk) ->
  wf_b (set_ser u (ser u ++ [47])) = true
  /\ set_host dbg hp hpo hd (set_ser u (ser u ++ [47])) None = Some (u', SOk).
Proof using.
  intros W Hh He H. pose proof (has_host_authority u W Hh) as Ha. pose proof (empty_end_with_path u W He) as Ewp.
  assert (wf_b (set_ser u (ser u ++ [47])) = true) as W'.
  { rewrite <- Ewp. apply (wp_wf u [47] W Ha); [reflexivity | right; exists []; reflexivity]. }
  split; [exact W'|].
  pose proof (wf_auth_facts u W Ha) as F.
  pose proof (af_ue F); pose proof (af_hs F); pose proof (af_he F); pose proof (af_ps F); pose proof (af_len F).
  unfold set_host in H |- *. rewrite (cannot_be_a_base_eval u W) in H. rewrite (cannot_be_a_base_eval _ W'). cbn [bindo] in H |- *.
  cbn [ser set_ser scheme_end path_start query_start fragment_start].
  assert (byte_eqb (ser u ++ [47]) (scheme_end u + 1) 47 = byte_eqb (ser u) (scheme_end u + 1) 47) as Eb.
  { unfold byte_eqb. rewrite nnth_app_lt by lia. reflexivity. }
  rewrite Eb. destruct (negb (byte_eqb (ser u) (scheme_end u + 1) 47)); [discriminate|].
  unfold u_scheme_type in H |- *. rewrite (add_slash_scheme u W W').
  destruct (scheme u) as [sch|]; cbn [bindo] in H |- *; [|discriminate].
  change (has_host (set_ser u (ser u ++ [47]))) with (has_host u). rewrite Hh in H |- *.
  match type of H with (if ?c then _ else _) = _ => destruct c end; [discriminate|].
  unfold path_empty_at_end in He. rewrite He in H. apply N.eqb_eq in He.
  assert ((nlen (ser u ++ [47]) =? path_start u) = false) as En.
  { apply N.eqb_neq. rewrite nlen_app. change (nlen [47]) with 1. lia. }
  rewrite En. exact H.
Qed.

Hypothesis HW : HostWf hp hpo hd.

Let HF : host_fns_ok hp hpo hd := HostWf_fns_ok hp hpo hd HW.

Lemma host_post_kind u u' h sch : scheme u = Some sch -> host_src sch h -> host_set_post dbg hd u u' h ->
  wfh u' /\ step_kind u u'.
Proof using.
  intros Hs Hsrc (A & B & Es & _ & _ & Ep & [Epa _] & Eh & _). split; [exact (conj A B)|].
  right. exact (HK_set u u' sch h Hs Hsrc Es Epa Eh (or_introl Ep)).
Qed.

Lemma set_host_some_kind u x u' st : wfh u -> host_bad u u' = false ->
  set_host dbg hp hpo hd u (Some x) = Some (u', st) -> u' = u \/ wfh u' /\ step_kind u u'.
Proof using HW.
  intros [W HT] G H. destruct (host_bad_premises u u' W G) as [X2 X1].
  destruct st; [right | left; apply (set_host_atomic dbg hp hpo hd u (Some x) u' _ H); discriminate ..].
  unfold set_host in H. rewrite (cannot_be_a_base_eval u W) in H. cbn [bindo] in H.
  destruct (byte_eqb (ser u) (scheme_end u + 1) 47) eqn:Hsl; cbn [negb] in H; [|discriminate].
  unfold u_scheme_type in H. rewrite (scheme_eval u W) in H. cbn [bindo] in H.
  set (sch := piece u (pidx u BeforeScheme) (pidx u AfterScheme)) in *.
  match type of H with (if ?c then _ else _) = _ => destruct c end; [discriminate|].
  match type of H with (match ?sub with Some _ => _ | None => _ end) = _ => destruct sub as [hsub|] end; [|discriminate].
  match type of H with (match ?r with Ok _ => _ | Err _ => _ end) = _ => destruct r as [host|e] eqn:Er end; [|discriminate].
  destruct (set_host_internal dbg hd u host None) as [u0|] eqn:E; cbn [bindo] in H; [|discriminate].
  inversion H; subst u0.
  apply (host_post_kind u u' host sch (scheme_eval u W)); [left; exists hsub; exact Er|].
  apply (set_host_internal_post dbg hd u host u' W); [| |exact X2 | exact Hsl | exact E].
  - destruct HF as (F1 & F2 & _). destruct (st_is_special (scheme_type_of sch)); [exact (F1 _ _ Er) | exact (F2 _ _ Er)].
  - intros Ha Hn. apply (X1 Ha). rewrite (set_host_internal_hosti dbg hd u host None u' E). exact Hn.
Qed.

Lemma set_ip_host_kind u h u' st : IpDisp -> wfh u -> op_args_ok (OSetIpHost h) -> host_bad u u' = false ->
  set_ip_host dbg hd u h = Some (u', st) -> u' = u \/ wfh u' /\ step_kind u u'.
Proof using.
  intros HIP [W HT] Ha G H. destruct (host_bad_premises u u' W G) as [X2 _].
  destruct (set_ip_host_ok dbg hd u h u' st W (HIP h Ha) X2 H) as [Herr Hok].
  destruct st; [right | left; apply Herr; discriminate ..].
  apply (host_post_kind u u' h _ (scheme_eval u W)); [right; left; exact Ha|].
  (* an address is not the empty host: the clause about a stored port is void *)
  apply (Hok eq_refl). intros _ Hn. destruct h; [contradiction | discriminate ..].
Qed.

(* the file / empty-argument shortcut of the two quirks host setters stores no host *)
Lemma q_set_host_shortcut u sch u' : wf_b u = true -> scheme u = Some sch -> scheme_type_of sch = STFile ->
  q_set_host dbg hp hpo hd u [] = Some (u', SOk) -> hosti u' = HI_None.
Proof using.
  intros W Hs Hf H. unfold q_set_host in H. rewrite (cannot_be_a_base_eval u W) in H. cbn [bindo] in H.
  destruct (byte_eqb (ser u) (scheme_end u + 1) 47); cbn [negb] in H; [|discriminate].
  rewrite Hs in H. cbn [bindo] in H. cbv zeta in H. rewrite Hf in H. cbn [scheme_type_eqb andb] in H.
  destruct (set_host_internal dbg hd u (HDomain []) None) as [u0|] eqn:E; cbn [bindo] in H; [|discriminate].
  inversion H; subst u0. exact (set_host_internal_hosti dbg hd u (HDomain []) None u' E).
Qed.

Lemma q_set_hostname_shortcut u sch u' : wf_b u = true -> scheme u = Some sch -> scheme_type_of sch = STFile ->
  q_set_hostname dbg hp hpo hd u [] = Some (u', SOk) -> hosti u' = HI_None.
Proof using.
  intros W Hs Hf H. unfold q_set_hostname in H. rewrite (cannot_be_a_base_eval u W) in H. cbn [bindo] in H.
  destruct (byte_eqb (ser u) (scheme_end u + 1) 47); cbn [negb] in H; [|discriminate].
  rewrite Hs in H. cbn [bindo] in H. cbv zeta in H. rewrite Hf in H. cbn [scheme_type_eqb andb] in H.
  destruct (set_host_internal dbg hd u (HDomain []) None) as [u0|] eqn:E; cbn [bindo] in H; [|discriminate].
  inversion H; subst u0. exact (set_host_internal_hosti dbg hd u (HDomain []) None u' E).
Qed.

Lemma q_host_port_stored sch rem np : q_host_port sch rem = Some np -> port_stored sch np.
Proof using.
  unfold q_host_port. destruct (inp_split_prefix_char 58 rem) as [r|]; [|discriminate].
  destruct (inp_is_empty r); [discriminate|].
  destruct (parse_port CSetter (default_port sch) r) as [[q r2]| |] eqn:Ep; try discriminate.
  intros H. inversion H; subst. right. exists r, r2. exact Ep.
Qed.

Lemma q_set_host_kind u v u' st : wfh u -> host_bad u u' = false ->
  q_set_host dbg hp hpo hd u v = Some (u', st) -> u' = u \/ wfh u' /\ step_kind u u'.
Proof using HW.
  intros [W HT] G H. destruct (host_bad_premises u u' W G) as [X2 X1].
  destruct st; [right | left; apply (q_set_host_atomic dbg hp hpo hd u v u' _ H); discriminate ..].
  destruct (q_set_host_post dbg hp hpo hd HF u v u' W X2 H) as (sch & h & Hs & [(Hf & -> & -> & P)|(rem & Hph & P)]).
  - apply (host_post_kind u u' (HDomain []) sch Hs); [right; right; left; exact (conj Hf eq_refl)|].
    apply P. intros Ha. exact (X1 Ha (q_set_host_shortcut u sch u' W Hs Hf H)).
  - assert (host_src sch h) as Hsrc by (right; right; right; exists (input_new_no_trim v), rem; exact Hph).
    destruct (q_host_port sch rem) as [np|] eqn:Eq; [|exact (host_post_kind u u' h sch Hs Hsrc P)].
    destruct P as (A & B & Es & _ & _ & Ep & [Epa _] & Eh & _). split; [exact (conj A B)|].
    right. apply (HK_set u u' sch h Hs Hsrc Es Epa Eh). right. rewrite Ep. exact (q_host_port_stored sch rem np Eq).
Qed.

Lemma q_set_hostname_kind u v u' st : wfh u -> host_bad u u' = false ->
  q_set_hostname dbg hp hpo hd u v = Some (u', st) -> u' = u \/ wfh u' /\ step_kind u u'.
Proof using HW.
  intros [W HT] G H. destruct (host_bad_premises u u' W G) as [X2 X1].
  destruct st; [right | left; apply (q_set_hostname_atomic dbg hp hpo hd u v u' _ H); discriminate ..].
  destruct (q_set_hostname_post dbg hp hpo hd HF u v u' W X2 H) as (sch & h & Hs & [(Hf & -> & -> & P)|((rem & Hph) & P)]).
  - apply (host_post_kind u u' (HDomain []) sch Hs); [right; right; left; exact (conj Hf eq_refl)|].
    apply P. intros Ha. exact (X1 Ha (q_set_hostname_shortcut u sch u' W Hs Hf H)).
  - apply (host_post_kind u u' h sch Hs); [|exact P]. right; right; right. exists (input_new_no_trim v), rem. exact Hph.
Qed.

(* on an empty path at the end of the serialization the setter first appends '/' (F-C06-5: the path changes) *)
Lemma set_host_none_kind u u' st : wfh u -> (has_host u && path_starts_with_2slash u = false) ->
  set_host dbg hp hpo hd u None = Some (u', st) -> u' = u \/ wfh u' /\ step_kind u u'.
Proof using.
  intros [W HT] G H.
  destruct (set_host_none_ok dbg hp hpo hd u u' st W H) as (Herr & Hno & Hok).
  destruct st; [|left; apply Herr; discriminate ..].
  destruct (has_host u) eqn:Hh; [right | left; exact (Hno eq_refl eq_refl)].
  cbn [andb] in G.
  (* the setter refuses a special scheme other than file *)
  assert (forall sch, scheme u = Some sch -> st_is_special (scheme_type_of sch) = true ->
            st_is_file (scheme_type_of sch) = true) as Hf.
  { intros sch Hs Hsp. unfold set_host in H. rewrite (cannot_be_a_base_eval u W) in H. cbn [bindo] in H.
    destruct (negb (byte_eqb (ser u) (scheme_end u + 1) 47)); [discriminate|].
    unfold u_scheme_type in H. rewrite Hs in H. cbn [bindo] in H. rewrite Hh, Hsp in H.
    destruct (st_is_file (scheme_type_of sch)); [reflexivity | discriminate]. }
  destruct (path_empty_at_end u) eqn:He.
  - destruct (set_host_none_slash u u' W Hh He H) as [W0 H0]. destruct (add_slash_path u He) as [X1 X2].
    destruct (set_host_none_ok dbg hp hpo hd _ u' SOk W0 H0) as (_ & _ & Hok0).
    destruct (Hok0 eq_refl Hh X1 X2) as (W' & HT' & Es & _ & _ & _ & Eh & Ep). split; [exact (conj W' HT')|].
    right. apply HK_none; [|exact Eh | exact Ep | exact Hf | intros X; congruence].
    rewrite Es. exact (add_slash_scheme u W W0).
  - destruct (Hok eq_refl eq_refl eq_refl G) as (W' & HT' & Es & [Epa _] & _ & _ & Eh & Ep). split; [exact (conj W' HT')|].
    right. exact (HK_none u u' Es Eh Ep Hf (fun _ => Epa)).
Qed.

(* one step, any of the 19 mutators *)
Theorem step_cases u o u' : IpDisp -> wfh u -> op_args_ok o -> excl03 u o u' = false ->
  apply_op dbg hp hpo hd u o = Some u' -> u' = u \/ wfh u' /\ step_kind u u'.
Proof using HW.
  intros HIP K Ha G H. pose proof (keep_cases u o u' K Ha G H) as KC.
  destruct o; cbn [apply_op excl03 op_args_ok] in H, G, Ha;
    try (destruct KC as [E|[K' k]]; [left; exact E | right; exact (conj K' (or_introl k))]);
    apply omf_some in H; destruct H as [st H].
  - destruct h as [x|]; [exact (set_host_some_kind u x u' st K G H) | exact (set_host_none_kind u u' st K G H)].
  - exact (set_ip_host_kind u h u' st HIP K Ha G H).
  - exact (q_set_host_kind u s u' st K G H).
  - exact (q_set_hostname_kind u s u' st K G H).
Qed.

Theorem step03 u o u' : IpDisp -> wfh u -> op_args_ok o -> excl03 u o u' = false ->
  apply_op dbg hp hpo hd u o = Some u' -> wfh u'.
Proof using HW.
  intros HIP K Ha G H. destruct (step_cases u o u' HIP K Ha G H) as [->|[K' _]]; assumption.
Qed.

End Steps.
