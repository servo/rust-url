(* Proofs/C13_Parse.v - reading the decoder's input one delta at a time: whatever digit string the checked
   decoder accepts for one delta is, in lower case, the string the encoder writes for that delta
   (uniqueness of the generalized variable-length integer representation); and an Ok run of the model's
   decoder loop is a successful run of the checked decoder b_dec_loop. *)
From RU Require Import Base.Prelude Base.U32_c13 Model.Punycode Spec.Rfc3492
  Proofs.C13_Ascii Proofs.C13_Enc Proofs.C13_Dec Proofs.C13_Vli Proofs.C13_DecB.

Lemma digit_u8_lower c d : digit_u8 c = Some d -> d < 36 /\ to_lower c = s_digit_char d.
Proof.
  rewrite digit_u8_table. unfold digit_u8_spec, to_lower, is_upper, s_digit_char. intros H.
  destruct ((48 <=? c) && (c <=? 57)) eqn:E1.
  - inversion H. subst d. split; [lia|].
    replace ((65 <=? c) && (c <=? 90)) with false by lia. replace (c - 48 + 26 <? 26) with false by lia. lia.
  - destruct ((65 <=? c) && (c <=? 90)) eqn:E2.
    + inversion H. subst d. split; [lia|]. replace (c - 65 <? 26) with true by lia. lia.
    + destruct ((97 <=? c) && (c <=? 122)) eqn:E3; [|discriminate].
      inversion H. subst d. split; [lia|]. replace (c - 97 <? 26) with true by lia. lia.
Qed.

(* the digits D read for one delta determine q, and q determines them: a digit below the threshold t ends the delta
   with q = digit; otherwise q = digit + (36 - t) * q1, where q1 is what the following digits give, and since
   digit - t < 36 - t the encoder's (q - t) mod (36 - t) and (q - t) / (36 - t) are digit - t and q1 (N.mod_unique,
   N.div_unique): it writes the same digit and goes on with q1 *)
Lemma vli_parse dig (Hd : forall c d, dig c = Some d -> d < 36 /\ to_lower c = s_digit_char d) R :
  forall mid oldi w k i n bias out s, R <> [] ->
  b_dec_loop dig R mid oldi w k i n bias out = Some s ->
  exists q D R', R = D ++ R'
    /\ (forall f, q < 2 ^ N.of_nat f -> map to_lower D = s_enc_vli (S f) q k bias)
    /\ i + q * w <= U32_MAX
    /\ b_dec_break (b_dec_loop dig) R' oldi (i + q * w) n bias out = Some s.
Proof.
  induction R as [|c R IH]; intros mid oldi w k i n bias out s Hne H; [congruence|].
  apply b_dec_loop_inv in H. destruct H as (digit & Edig & Hfit & H).
  destruct (Hd c digit Edig) as [Hd36 Hlow].
  pose proof (s_threshold_range k bias) as Ht.
  remember (s_threshold k bias) as t in *. change s_base with 36 in *.
  destruct (digit <? t) eqn:Et.
  - exists digit, [c], R. split; [reflexivity|]. split; [|split; [lia|exact H]].
    intros f _. rewrite s_enc_vli_S, <- Heqt, Et. cbn [map]. rewrite Hlow. reflexivity.
  - destruct R as [|c' R'']; [cbn [b_dec_loop] in H; discriminate|].
    destruct (IH _ _ _ _ _ _ _ _ _ ltac:(discriminate) H) as [q1 [D1 [R' [E [F1 [B1 H1]]]]]].
    exists (digit + (36 - t) * q1), (c :: D1), R'.
    assert (Hq : digit + (36 - t) * q1 - t = (36 - t) * q1 + (digit - t)).
    { remember ((36 - t) * q1) as X. lia. }
    assert (Hi : i + (digit + (36 - t) * q1) * w = i + digit * w + q1 * (w * (36 - t))) by ring.
    split; [cbn [app]; rewrite E; reflexivity|]. split; [|split; [rewrite Hi; exact B1|rewrite Hi; exact H1]].
    intros f Hf. rewrite s_enc_vli_S, <- Heqt. change s_base with 36.
    replace (digit + (36 - t) * q1 <? t) with false by (remember ((36 - t) * q1) as X; lia).
    rewrite Hq.
    assert (Hmod : ((36 - t) * q1 + (digit - t)) mod (36 - t) = digit - t).
    { symmetry. apply (N.mod_unique _ _ q1); [lia|reflexivity]. }
    assert (Hdiv : ((36 - t) * q1 + (digit - t)) / (36 - t) = q1).
    { symmetry. apply (N.div_unique _ _ _ (digit - t)); [lia|reflexivity]. }
    rewrite Hmod, Hdiv. clear Hmod Hdiv Hq Hi H H1 IH.
    replace (t + (digit - t)) with digit by lia.
    cbn [map]. rewrite Hlow. f_equal.
    destruct f as [|f'].
    + change (2 ^ N.of_nat 0) with 1 in Hf. remember ((36 - t) * q1) as X. lia.
    + apply F1. rewrite Nat2N.inj_succ, N.pow_succ_r' in Hf.
      (* 36 - t >= 10 = BASE - T_MAX: q1 is at most a tenth of q, so one unit of fuel less is enough for it *)
      assert (H10 : 10 * q1 <= (36 - t) * q1) by (apply N.mul_le_mono_r; lia).
      remember (2 ^ N.of_nat f') as P. remember ((36 - t) * q1) as X. lia.
Qed.

(* an Ok run of the model's decoder is a run of the checked decoder *)
Lemma dec_loop_b cfg it base input : forall mid prev w k i length cp bias ins out ins',
  length = len out -> length + len input <= U32_MAX -> Rep it base (sort_by_key ins) 0 out ->
  dec_loop cfg it input mid prev w k i length cp bias ins = Ok ins' ->
  exists out', b_dec_loop (inst_digit it) input mid prev w k i cp bias out = Some out'
               /\ Rep it base (sort_by_key ins') 0 out'.
Proof.
  intros mid prev w k i length cp bias ins out ins' Hlen Hbound HR H.
  pose proof (dec_loop_checked cfg it base input mid prev w k i length cp bias ins out Hlen HR) as C.
  destruct (b_dec_loop (inst_digit it) input mid prev w k i cp bias out) as [out'|].
  - exists out'. destruct C as [ins'' [E HR']]. rewrite E in H. inversion H. subst ins''. split; [reflexivity|exact HR'].
  - rewrite (C Hbound) in H. discriminate.
Qed.
