(* Proofs/Idna_Hyp.v - the explicit premises of the adapter-relative statements (AdapterOK, PunyRT; DESIGN
   section 8), the deny lists the API can build (valid_deny, DenyUpper), the projections of a to_user_interface result,
   and the statements of C10 - C12 as propositions.  The labels H0 - H3 on the fields of AdapterOK are the names DESIGN.md
   uses for them. *)
From RU Require Import Base.Prelude Base.Utf8 Base.U32_c13 Gen.Tables Model.Punycode Model.Uts46
  Proofs.Idna_Sim Proofs.Idna_Api Proofs.Idna_Known.

(* ASCII case variants: same length, equal up to the case of ASCII letters *)
Definition ascii_case_variant (d d' : list N) : Prop := map to_lower d = map to_lower d'.

Record AdapterOK (A : adapter) : Prop := {
  (* H0 *) ok_nil : map_normalize A [] = [];
  (* H1 *) ok_ascii : forall l, is_ascii_l l = true -> map_normalize A l = map to_lower l;
           ok_case : forall l l', ascii_case_variant l l' -> map_normalize A l = map_normalize A l';
  (* H2 *) ok_stable : forall l, existsb is_fffd (map_normalize A l) = false ->
             forall piece, In piece (split_on DOT (map_normalize A l)) -> normalize_validate A piece = piece;
  (* H3 *) ok_fffd : forall l, existsb is_fffd l = false -> existsb is_fffd (normalize_validate A l) = true ->
             normalize_validate A l <> l }.

(* C13's internal round trip with the u8 decoder required to return the label itself: UNSATISFIABLE (the U8Internal
   instantiation lower-cases the basic code units, so [65; 252] -> "A-eha" -> [97; 252]); refuted by PunyRT_old_unsat
   of Proofs/Idna_PunyRT.v.  The satisfiable form is PunyRT below. *)
Definition PunyRT_old (cfg : bool) : Prop := forall l p,
  len l <= PUNYCODE_ENCODE_MAX_INPUT_LENGTH -> usv_list l -> existsb (fun c => negb (is_ascii_cp c)) l = true ->
  encode_internal cfg l = Ok p -> decode_with cfg U8Internal p = Ok l /\ decode_with cfg CharInternal p = Ok l.

(* C13's internal round trip: what the internal encoder writes for a label of at most 1000 scalar
   values is read back by the char decoder as the label, and by the u8 decoder (which lower-cases the basic code
   units) as the label with its ASCII letters lower-cased.  C10_idem_statement and C12_statement below take it as a
   premise; it holds: punyrt_holds : forall cfg, PunyRT cfg  (Proofs/Idna_PunyRT.v, from the C13 development). *)
Definition PunyRT (cfg : bool) : Prop := forall l p,
  len l <= PUNYCODE_ENCODE_MAX_INPUT_LENGTH -> usv_list l -> encode_internal cfg l = Ok p ->
  decode_with cfg CharInternal p = Ok l /\ decode_with cfg U8Internal p = Ok (map to_lower l).

(* deny lists the API can build *)
Definition valid_deny (deny : N) : Prop :=
  deny = DENY_STD3 \/ exists g l, deny_new g l = Ok deny.
(* bit c of the mask deny is set *)
Definition deny_member (deny : N) (c : N) : bool := negb (N.land deny (N.shiftl 1 c) =? 0).
Lemma deny_empty_valid : valid_deny DENY_EMPTY.
Proof. right. exists T_IDNA_EMPTY_GLYPHLESS, T_IDNA_EMPTY_LIST. reflexivity. Qed.

(* projections of a to_user_interface / to_unicode result; a panic reads as no error and empty text, so a statement
   in terms of ui_err / ui_text says nothing against a panic unless it also has ui_panics = false *)
Definition ui_err (r : uires) : bool := match r with UI _ _ e => e | UIPanic _ => false end.
Definition ui_text (r : uires) : list N := match r with UI _ t _ => t | UIPanic _ => [] end.
Definition ui_panics (r : uires) : bool := match r with UIPanic _ => true | _ => false end.
Definition res_err {X} (r : res X) : bool := match r with Err => true | _ => false end.

Section Statements.
Variable A : adapter.
Variable cfg : bool.

Definition C10_ascii_statement : Prop := forall d deny hy dns b r, bytes d -> valid_deny deny ->
  to_ascii A cfg d deny hy dns = Ok (b, r) ->
  Forall (fun c => c < 128 /\ is_upper c = false /\ deny_member deny c = false) r.
Definition C10_idem_statement : Prop := AdapterOK A -> PunyRT cfg -> forall d deny hy dns b r,
  bytes d -> valid_deny deny -> Known_C12 A cfg d deny hy = false ->
  to_ascii A cfg d deny hy dns = Ok (b, r) -> exists b', to_ascii A cfg r deny hy dns = Ok (b', r).
Definition C10_case_statement : Prop := AdapterOK A -> forall d d' deny hy dns b r,
  bytes d -> valid_deny deny -> ascii_case_variant d d' ->
  to_ascii A cfg d deny hy dns = Ok (b, r) -> exists b', to_ascii A cfg d' deny hy dns = Ok (b', r).

Definition C11_same_verdict_statement : Prop := forall d deny hy p, bytes d -> valid_deny deny ->
  Known_C11 A cfg d deny hy = false ->
  is_panic (to_ascii A cfg d deny hy DIgnore) = false -> ui_panics (to_user_interface A cfg d deny hy p) = false ->
  res_err (to_ascii A cfg d deny hy DIgnore) = ui_err (to_user_interface A cfg d deny hy p).
Definition C11_err_fffd_statement : Prop := forall d deny hy p, bytes d -> valid_deny deny ->
  Known_C11 A cfg d deny hy = false ->
  ui_err (to_user_interface A cfg d deny hy p) = true -> In FFFD (ui_text (to_user_interface A cfg d deny hy p)).
Definition C11_ok_no_fffd_statement : Prop := forall d deny hy p b t, bytes d -> valid_deny deny ->
  to_user_interface A cfg d deny hy p = UI b t false -> ~ In FFFD t.
Definition C11_dual_statement : Prop := forall d deny hy p s a, bytes d -> valid_deny deny ->
  process A cfg false p d deny hy None None true = (PWroteToSink, s, a) ->
  to_user_interface A cfg d deny hy p = UI false s false /\
  exists b, to_ascii A cfg d deny hy DIgnore = Ok (b, match a with [] => s | _ => a end).
Definition C11_passthrough_statement : Prop := forall ff p d deny hy k1 k2 w s a, bytes d -> valid_deny deny ->
  process A cfg ff p d deny hy k1 k2 w = (PPassthrough, s, a) ->
  Known_C11 A cfg d deny hy = false ->
  ascii d /\ to_ascii A cfg d deny hy DIgnore = Ok (true, d).

Definition C12_statement : Prop := AdapterOK A -> PunyRT cfg -> forall d deny hy b a,
  bytes d -> valid_deny deny -> Known_C12 A cfg d deny hy = false -> Known_C11 A cfg d deny hy = false ->
  to_ascii A cfg d deny hy DIgnore = Ok (b, a) ->
  let u := ui_text (to_unicode A cfg d deny hy) in
  (* u_of_a *) (ui_text (to_unicode A cfg a deny hy) = u /\ ui_err (to_unicode A cfg a deny hy) = false) /\
  (* a_of_u *) (exists b', to_ascii A cfg (utf8_encode u) deny hy DIgnore = Ok (b', a)) /\
  (* u_idem *) (ui_text (to_unicode A cfg (utf8_encode u) deny hy) = u /\ ui_err (to_unicode A cfg (utf8_encode u) deny hy) = false) /\
  (* ui     *) (forall p, exists b', to_ascii A cfg (utf8_encode (ui_text (to_user_interface A cfg d deny hy p))) deny hy DIgnore = Ok (b', a)).
End Statements.

(* a deny list that contains the upper-case letters (premise of the rediscovery lemma, Proofs/Idna_Redisc.v); the three
   built-in lists do *)
Definition DenyUpper (deny : N) : Prop := forall b, is_upper b = true -> deny_member deny b = true.
Lemma deny_upper_builtin : DenyUpper DENY_EMPTY /\ DenyUpper DENY_STD3 /\ DenyUpper DENY_URL.
Proof.
  assert (H : forall deny, all_below 128 (fun b => implb (is_upper b) (deny_member deny b)) = true -> DenyUpper deny).
  { intros deny Hs b Hb. pose proof (all_below_spec 128 _ Hs b) as Hx. cbv beta in Hx.
    assert (Hlt : b < 128) by (unfold is_upper in Hb; lia). specialize (Hx Hlt). rewrite Hb in Hx. exact Hx. }
  repeat split; apply H; vm_compute; reflexivity.
Qed.
