(* Proofs/C05_FinEx2.v - the hypotheses of the CReachF theorems are met and the steps CReachF adds to CReach3 are
   taken: with the example host functions of C05_FinEx (HostWf, HostOK, IpDisp, IpOKv):
   parse "http://h.x/a?q"; quirks set_host "o.x:81"; query_pairs_mut().append_pair("k'", "v w~");
   join "../w v#f`" against the result - a base that comes straight out of mutator steps, no premise. *)
From Coq Require Import String.
From RU Require Import Base.Prelude Model.HostT Model.UrlRecord Model.Parser Model.Setters Model.WF Model.FormUrlencoded Model.QueryPairs
  Proofs.ListN Proofs.C02_Reach Proofs.C02_AuthMain Proofs.C03_ReachParts
  Proofs.C05_Enc Proofs.C05_Parser Proofs.C05_History Proofs.C05_Sharp Proofs.C05_Comp Proofs.C05_CompSteps Proofs.C05_CompHist
  Proofs.C05_CompSteps2 Proofs.C05_CompReach Proofs.C05_CompSteps3 Proofs.C05_Alphabet Proofs.C05_FinEx
  Proofs.C15_Ser Proofs.C05_ReachF.
Open Scope N_scope.
Open Scope list_scope.

Definition finF_example_stmt : Prop :=
  HostWf ex_hp ex_hp fx_hd /\ HostOK ex_hp ex_hp fx_hd /\ IpDisp fx_hd /\ IpOKv fx_hd
  /\ exists u, CReachF true ex_hp ex_hp fx_hd u /\ ser u = B "http://o.x:81/w%20v#f%60"
       /\ alphabet_ok u /\ sharp u.

Lemma finF_example : finF_example_stmt.
Proof.
  split; [exact fx_host_wf|]. split; [exact fx_host_ok|]. split; [exact fx_ip_disp|]. split; [exact fx_ip_okv|].
  destruct (parse_url true ex_hp ex_hp fx_hd None None (B "http://h.x/a?q")) as [u0| |] eqn:E0;
    [|vm_compute in E0; discriminate ..].
  pose proof (CRF_parse true ex_hp ex_hp fx_hd None _ u0 E0) as R0. vm_compute in E0. injection E0 as <-.
  match type of R0 with CReachF _ _ _ _ ?u =>
    destruct (apply_op true ex_hp ex_hp fx_hd u (OQHost (B "o.x:81"))) as [u1|] eqn:E1;
      [|vm_compute in E1; discriminate] end.
  pose proof E1 as E1'. vm_compute in E1'. injection E1' as <-.
  match type of E1 with apply_op _ _ _ _ ?u ?o = Some ?u' =>
    assert (CReachF true ex_hp ex_hp fx_hd u') as R1 end.
  { eapply CRF_step; [exact R0 | | exact E1]. cbn [step_gate3]. split.
    - intros X. vm_compute in X. discriminate.
    - intros _ X. vm_compute in X. discriminate. }
  clear R0 E1.
  match type of R1 with CReachF _ _ _ _ ?u =>
    destruct (query_pairs_session true u [OpAppendPair (B "k'") (B "v w~")]) as [u2|] eqn:E2;
      [|vm_compute in E2; discriminate] end.
  pose proof E2 as E2'. vm_compute in E2'. injection E2' as <-.
  match type of E2 with query_pairs_session _ ?u ?o = Some ?u' =>
    assert (CReachF true ex_hp ex_hp fx_hd u') as R2 end.
  { eapply CRF_qpm; [exact R1 | | exact E2]. repeat constructor; unfold is_usv; lia. }
  clear R1 E2.
  match type of R2 with CReachF _ _ _ _ ?b =>
    destruct (parse_url true ex_hp ex_hp fx_hd None (Some b) (B "../w v#f`")) as [u3| |] eqn:E3;
      [|vm_compute in E3; discriminate ..];
    assert (CReachF true ex_hp ex_hp fx_hd u3) as R3
      by (eapply (CRF_join true ex_hp ex_hp fx_hd None b); [exact R2 | exact E3])
  end.
  exists u3. split; [exact R3|]. split; [vm_compute in E3; injection E3 as <-; vm_compute; reflexivity|].
  split.
  - exact (creachF_alphabet true ex_hp ex_hp fx_hd fx_host_wf fx_host_ok fx_ip_disp fx_ip_okv u3 R3).
  - exact (creachF_sharp true ex_hp ex_hp fx_hd fx_host_wf fx_host_ok fx_ip_disp fx_ip_okv u3 R3).
Qed.

(* the hypotheses of the host-clause theorem are met *)
From RU Require Import Proofs.C05_HostText Proofs.C05_HostClause.

Definition okb_text (s : list N) : Prop := Forall ok_byte s.

Lemma fx_host_spq : HostSpQ ex_hp fx_hd okb_text.
Proof.
  split.
  - intros s h E _. apply fx_host_ok. right. left. exists s. exact E.
  - exact fx_ip_okv.
Qed.

(* parse "http://h.x/a?q" satisfies FInv and HC; quirks set_host "o.x:81" is a gated step; the result has the host
   text "o.x" *)
Definition hc_example_stmt : Prop :=
  HostSpQ ex_hp fx_hd okb_text
  /\ exists u0 u1, parse_url true ex_hp ex_hp fx_hd None None (B "http://h.x/a?q") = POk u0
       /\ FInv true u0 /\ HC okb_text u0 /\ GHistF true ex_hp ex_hp fx_hd u0 u1
       /\ host_str u1 = Some (Some (B "o.x")) /\ HC okb_text u1.

Lemma hc_example : hc_example_stmt.
Proof.
  split; [exact fx_host_spq|].
  destruct (parse_url true ex_hp ex_hp fx_hd None None (B "http://h.x/a?q")) as [u0| |] eqn:E0;
    [|vm_compute in E0; discriminate ..].
  pose proof (creachF_inv true ex_hp ex_hp fx_hd fx_host_wf fx_host_ok fx_ip_disp fx_ip_okv u0
                (CRF_parse true ex_hp ex_hp fx_hd None _ u0 E0)) as F0.
  vm_compute in E0. injection E0 as <-.
  match type of F0 with FInv _ ?u =>
    destruct (apply_op true ex_hp ex_hp fx_hd u (OQHost (B "o.x:81"))) as [u1|] eqn:E1;
      [|vm_compute in E1; discriminate] end.
  pose proof E1 as E1'. vm_compute in E1'. injection E1' as <-.
  match type of E1 with apply_op _ _ _ _ ?u ?o = Some ?u' => exists u, u' end.
  split; [reflexivity|]. split; [exact F0|].
  match goal with |- HC _ ?u /\ _ => assert (HC okb_text u) as H0 end.
  { intros _ s Hs. vm_compute in Hs. inversion Hs; subst s. repeat constructor; unfold ok_byte; lia. }
  split; [exact H0|].
  match goal with |- GHistF _ _ _ _ ?u ?u' /\ _ => assert (GHistF true ex_hp ex_hp fx_hd u u') as G end.
  { eapply GF_step; [ | exact E1 | apply GF_refl]. cbn [step_gate3]. split.
    - intros X. vm_compute in X. discriminate.
    - intros _ X. vm_compute in X. discriminate. }
  split; [exact G|]. split; [vm_compute; reflexivity|].
  exact (proj2 (hc_history true ex_hp ex_hp fx_hd okb_text fx_host_spq fx_host_wf fx_ip_disp fx_host_ok fx_ip_okv _ _ G F0 H0)).
Qed.

(* the backslash clause: parse "http://h.x\a"; set_path("x\y"); path_segments_mut().push("c\d") *)
From RU Require Import Proofs.C05_PathSp Proofs.C05_ReachFSp.

Definition bs_example_stmt : Prop :=
  exists u, CReachF true ex_hp ex_hp fx_hd u /\ ser u = B "http://h.x/x/y/c%5Cd" /\ spb u = true
    /\ cannot_be_a_base u = Some false /\ forall p, path u = Some p -> ~ In 92 p.

Lemma bs_example : bs_example_stmt.
Proof.
  destruct (parse_url true ex_hp ex_hp fx_hd None None (B "http://h.x\a")) as [u0| |] eqn:E0;
    [|vm_compute in E0; discriminate ..].
  pose proof (CRF_parse true ex_hp ex_hp fx_hd None _ u0 E0) as R0. vm_compute in E0. injection E0 as <-.
  match type of R0 with CReachF _ _ _ _ ?u =>
    destruct (apply_op true ex_hp ex_hp fx_hd u (OSetPath (B "x\y"))) as [u1|] eqn:E1;
      [|vm_compute in E1; discriminate] end.
  pose proof E1 as E1'. vm_compute in E1'. injection E1' as <-.
  match type of E1 with apply_op _ _ _ _ ?u ?o = Some ?u' =>
    assert (CReachF true ex_hp ex_hp fx_hd u') as R1 end.
  { eapply CRF_step; [exact R0 | | exact E1]. cbn [step_gate3 step_gate2 step_gate].
    split; [repeat constructor; unfold is_usv; lia|]. split; [intros _ _; vm_compute; reflexivity|].
    split; [intros X; vm_compute in X; discriminate | vm_compute; exact I]. }
  clear R0 E1.
  match type of R1 with CReachF _ _ _ _ ?u =>
    destruct (apply_op true ex_hp ex_hp fx_hd u (OPathSegments [PPush (B "c\d")])) as [u2|] eqn:E2;
      [|vm_compute in E2; discriminate] end.
  pose proof E2 as E2'. vm_compute in E2'. injection E2' as <-.
  match type of E2 with apply_op _ _ _ _ ?u ?o = Some ?u' =>
    assert (CReachF true ex_hp ex_hp fx_hd u') as R2 end.
  { eapply CRF_step; [exact R1 | | exact E2]. cbn [step_gate3 step_gate2].
    split; [repeat constructor; unfold is_usv; lia | vm_compute; exact I]. }
  eexists. split; [exact R2|]. split; [vm_compute; reflexivity|].
  assert (spb {| ser := B "http://h.x/x/y/c%5Cd"; scheme_end := 4; username_end := 7; host_start := 7; host_end := 10;
                 hosti := HI_Domain; port := None; path_start := 10; query_start := None; fragment_start := None |} = true) as Hs
    by (vm_compute; reflexivity).
  split; [vm_compute; reflexivity|].
  exact (creachF_special_path true ex_hp ex_hp fx_hd fx_host_wf fx_host_ok fx_ip_disp fx_ip_okv _ R2 Hs).
Qed.
