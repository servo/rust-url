(* Proofs/C01_EqFileAsm.v - the file class (Proofs/C01_EqFile.v) in the form of the assembled C01 theorem:
   the Standard's record of a "file:" input meets spec_base_ok and base_shape_ok (so a successful pair of
   results is a full_base pair and can serve as a base of the reference classes that hold for every base:
   "", "#f", "?q"), outcome relation agree_good, statement_shape, and the instance for the host model of
   Model/Host.v against the Standard's host parser relative to IdnaOK. *)
From RU Require Import Base.Prelude Base.Utf8 Model.HostT Model.UrlRecord Model.Parser Model.Setters Model.Host
  Spec.Whatwg Spec.WhatwgHostParse Proofs.C02_Parts Proofs.C02_Path Proofs.C09_Host Proofs.C01_EqRun
  Proofs.C01_EqRef Proofs.C01_EqAuthSpec Proofs.C01_EqRelArms Proofs.C01_EqRelBase Proofs.C01_EqSpSpec
  Proofs.C01_Override Proofs.C01_EqAsm Proofs.C01_EqShape Proofs.C01_EqCover Proofs.C01_EqFileSpec
  Proofs.C01_EqFile Proofs.C01_EqFileHost.

(* the Standard's record of a file URL *)
Lemma as_part_no_slash t : no_slash (as_part t) = true.
Proof.
  induction t as [|c r IH]; [reflexivity|]. cbn [as_part]. destruct (is_aes c) eqn:E; [reflexivity|].
  unfold no_slash in *. cbn [forallb]. rewrite IH. unfold is_aes, is_ae in E.
  assert ((c =? 47) = false) as -> by lia. reflexivity.
Qed.

Lemma file_tail_ok u t B : su_scheme u = str_file -> no_slash B = true ->
  spec_base_ok (file_tail u (spath_f t [] B)) = true /\ base_shape_ok (file_tail u (spath_f t [] B)) = true.
Proof.
  intros Hs HB. unfold file_tail. split.
  - rewrite (base_ok_same _ _ (tail_url_same _ _)). unfold spec_base_ok, Whatwg.path_segments.
    cbn [su_scheme su_path set_path]. rewrite Hs. rewrite (spath_f_no_slash t [] B eq_refl HB). reflexivity.
  - rewrite (shape_ok_of_shape _ _ (tail_url_shape _ _)). unfold base_shape_ok. cbn [su_scheme set_path]. rewrite Hs.
    reflexivity.
Qed.

Theorem sfile_result_ok shp R su : sfile shp u_file0 R = Some su ->
  spec_base_ok su = true /\ base_shape_ok su = true.
Proof.
  unfold sfile, fstart.
  assert (forall t B, no_slash B = true -> Some (file_tail (fu u_file0) (spath_f t [] B)) = Some su ->
            spec_base_ok su = true /\ base_shape_ok su = true) as H0.
  { intros t B HB H. inversion H. apply file_tail_ok; [reflexivity | exact HB]. }
  destruct R as [|c1 R1]; [apply H0; reflexivity|].
  destruct (is_sl c1); [|apply H0; reflexivity].
  destruct R1 as [|c2 T]; [apply H0; reflexivity|].
  destruct (is_sl c2); [|apply H0; reflexivity].
  unfold sfile_host_g, fstart. cbv zeta. cbn [app].
  destruct (is_windows_drive_letter (as_part T)); [apply H0; apply as_part_no_slash|].
  destruct (is_nil (as_part T)).
  - intros H. inversion H. apply file_tail_ok; reflexivity.
  - destruct (host_parsing shp false (as_part T)) as [sh|]; [|discriminate].
    intros H. inversion H. apply file_tail_ok; reflexivity.
Qed.

Theorem file_result_ok shp input sbase su : in_class_file input = true -> no_file_base sbase = true ->
  spec_basic_url_parse shp input sbase = BDone su -> spec_base_ok su = true /\ base_shape_ok su = true.
Proof.
  intros Hc Hnf HS. unfold in_class_file in Hc.
  destruct (spec_scheme (spec_clean input)) as [[sch R]|] eqn:Es; [|discriminate].
  apply andb_true_iff in Hc. destruct Hc as [Hsch _]. apply list_eqb_spec in Hsch. subst sch.
  pose proof (spec_file_any shp sbase input R Es Hnf) as K.
  destruct (sfile shp u_file0 R) as [su'|] eqn:E.
  - rewrite K in HS. inversion HS; subst su'. exact (sfile_result_ok shp R su E).
  - destruct K as [uf K]. rewrite K in HS. discriminate HS.
Qed.

(* the class theorem in the form of the assembled theorem *)
Section FileAsm.
Variable dbg : bool.
Variable hp hpo : list N -> result host.
Variable hd : host -> list N.
Variable shp : bool -> list N -> option spec_host.
Variable shs : spec_host -> list N.

Theorem class_file_good base sbase input : usv_list input -> in_class_file input = true ->
  base_sch_rel base sbase -> no_file_base sbase = true ->
  host_agree_file hp hd shp shs (class_host_text_f input) ->
  agree_good dbg shs (parse_url dbg hp hpo hd None base input) (spec_basic_url_parse shp input sbase)
  /\ (forall su u, spec_basic_url_parse shp input sbase = BDone su -> parse_url dbg hp hpo hd None base input = POk u ->
        full_base dbg shs u su).
Proof.
  intros Hu Hc Hb Hnf HA.
  assert (agree_good dbg shs (parse_url dbg hp hpo hd None base input) (spec_basic_url_parse shp input sbase)) as G.
  { apply agree_good_intro.
    - exact (class_file dbg hp hpo hd shp shs base sbase input Hu Hc Hb Hnf HA).
    - intros su HS. exact (proj1 (file_result_ok shp input sbase su Hc Hnf HS)). }
  split; [exact G|]. intros su u HS HM. rewrite HS in G.
  split; [exact (agree_good_chain dbg shs _ su u G HM) | exact (proj2 (file_result_ok shp input sbase su Hc Hnf HS))].
Qed.

(* a UTF-8 encoding override changes nothing *)
Theorem class_file_good_utf8 base sbase input : usv_list input -> in_class_file input = true ->
  base_sch_rel base sbase -> no_file_base sbase = true ->
  host_agree_file hp hd shp shs (class_host_text_f input) ->
  agree_good dbg shs (parse_url dbg hp hpo hd (Some utf8_encode) base input) (spec_basic_url_parse shp input sbase).
Proof. intros Hu Hc Hb Hnf HA. rewrite parse_url_utf8_override. apply class_file_good; assumption. Qed.

End FileAsm.

Lemma full_rel_sch dbg shs base sbase : full_rel dbg shs base sbase -> base_sch_rel base sbase.
Proof.
  unfold full_rel, base_sch_rel. destruct base as [b|]; destruct sbase as [sb|]; try exact (fun H => H).
  intros [[R _] _]. exact (rel_sch _ _ _ _ R).
Qed.

(* the host text of the class is a piece of the input *)
Lemma as_part_in t x : In x (as_part t) -> In x t.
Proof.
  induction t as [|c r IH]; intros H; [exact H|]. cbn [as_part] in H.
  destruct (is_aes c); [destruct H|]. destruct H as [H|H]; [left; exact H | right; exact (IH H)].
Qed.

Lemma class_host_text_f_usv input : usv_list input -> usv_list (class_host_text_f input).
Proof.
  intros Hu. pose proof (usv_spec_clean input Hu) as Hc. unfold class_host_text_f.
  destruct (spec_scheme (spec_clean input)) as [[sch R]|] eqn:Es; [|constructor].
  destruct (spec_scheme_suffix _ _ _ Es) as [pre E]. rewrite E in Hc. apply usv_app in Hc. destruct Hc as [_ Hc].
  unfold file_host_of. destruct R as [|c1 [|c2 T]]; try constructor.
  destruct (is_sl c1 && is_sl c2); [|constructor].
  apply (usv_of_in _ T); [exact (as_part_in T) | apply usv_cons in Hc; destruct Hc as [_ Hc]; apply usv_cons in Hc; tauto].
Qed.

(* C01_statement restricted to the file class for the parser model with the host model plugged in, against
   the Standard's parser with the Standard's host parser: relative to IdnaOK idna only *)
Theorem class_file_model dbg idna : IdnaOK idna -> forall input base sbase,
  usv_list input -> full_rel dbg spec_host_serializer base sbase -> no_file_base sbase = true ->
  in_class_file input = true ->
  agree_good dbg spec_host_serializer
    (parse_url dbg (host_parse idna) host_parse_opaque host_display None base input)
    (spec_basic_url_parse (spec_host_parser idna) input sbase)
  /\ (forall su u, spec_basic_url_parse (spec_host_parser idna) input sbase = BDone su ->
        parse_url dbg (host_parse idna) host_parse_opaque host_display None base input = POk u ->
        full_base dbg spec_host_serializer u su).
Proof.
  intros HI input base sbase Hu Hb Hnf Hc.
  apply class_file_good; [exact Hu | exact Hc | exact (full_rel_sch _ _ _ _ Hb) | exact Hnf|].
  apply host_agree_file_real; [exact (idna_out idna HI) | apply class_host_text_f_usv; exact Hu].
Qed.

Theorem class_file_instance dbg idna : IdnaOK idna -> forall input base sbase,
  usv_list input -> full_rel dbg spec_host_serializer base sbase -> no_file_base sbase = true ->
  in_class_file input = true ->
  statement_shape dbg spec_host_serializer
    (parse_url dbg (host_parse idna) host_parse_opaque host_display None base input)
    (spec_basic_url_parse (spec_host_parser idna) input sbase).
Proof.
  intros HI input base sbase Hu Hb Hnf Hc. apply agree_good_shape.
  exact (proj1 (class_file_model dbg idna HI input base sbase Hu Hb Hnf Hc)).
Qed.
