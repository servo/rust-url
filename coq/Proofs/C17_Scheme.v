(* Proofs/C17_Scheme.v - the scheme of the URL record parse_url returns (no base URL) is the scheme text
   parse_scheme read.  The work is in C16_Colons.parse_with_scheme_result (every later step of the parser
   only appends to the serialization, or truncates / splices it at an index behind "scheme:");
   parse_url_scheme reads the scheme slice off it.  Used in C17_Final.v to turn the premise
   "url_is_data u" of C17_statement into "parse_scheme read data". *)
From RU Require Import Base.Prelude Base.Utf8Facts
  Model.UrlRecord Model.Parser Proofs.ListN Proofs.C16_Colons.

(* s begins with P *)
Definition pre (P s : list N) : Prop := exists t, s = P ++ t.

Lemma pre_of_app P s t : s = P ++ t -> pre P s.
Proof. intros ->. exists t. reflexivity. Qed.

Section Scheme.
(* P = scheme ++ ":" *)
Variable sch : list N.
Let P : list N := sch ++ [58].
Let K : N := nlen P.

Lemma K_eq : K = nlen sch + 1.
Proof. unfold K, P. rewrite nlen_app. reflexivity. Qed.

End Scheme.

(* the scheme slice of the record is the scheme text read *)
Theorem parse_url_scheme dbg hp ho hd ovr input sch rem u :
  parse_scheme CUrlParser (input_new_trim_c0 input) = Some (sch, rem) ->
  parse_url dbg hp ho hd ovr None input = POk u ->
  nfirstn (scheme_end u) (ser u) = sch.
Proof.
  intros Hs H. unfold parse_url in H. cbv zeta in H. rewrite Hs in H.
  apply parse_with_scheme_result in H. destruct H as [H _]. unfold scheme, u_slice_to, slice_to_o in H.
  destruct (scheme_end u <=? nlen (ser u)); inversion H. reflexivity.
Qed.
