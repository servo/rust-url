(* Proofs/C19_Normal.v - the normal form of every parse result: type, subtype and parameter names
   are non-empty lower-case HTTP tokens, names are pairwise different, and every parameter value
   consists, up to its first ';', of HTTP quoted-string token code points. *)
From RU Require Import Base.Prelude Base.Utf8Facts Model.Mime
  Proofs.C19_Tables Proofs.C19_Pure.

(* the vocabulary of the statement parse_normal *)
Definition lower_http_token (s : list N) : Prop :=
  s <> [] /\ Forall (fun c => rfc7230_tchar c = true /\ is_upper c = false) s.

(* HTTP quoted-string token code point: TAB, 0x20-0x7E, 0x80-0xFF *)
Definition quoted_string_cp (c : N) : Prop := c = 9 \/ (32 <= c /\ c <= 126) \/ (128 <= c /\ c <= 255).
Definition value_wf (v : list N) : Prop := Forall quoted_string_cp (before_semicolon v).

(* boolean forms; the lemmas below speak of these, the Prop forms appear in the two _spec lemmas and in parse_normal only *)
Definition lower_tchar (c : N) : bool := rfc7230_tchar c && negb (is_upper c).
Definition lower_token (s : list N) : bool := negb (is_empty s) && forallb lower_tchar s.
Definition value_ok (v : list N) : bool := valid_value (before_semicolon v).

Lemma lower_token_spec s : lower_token s = true <-> lower_http_token s.
Proof.
  unfold lower_token, lower_http_token. rewrite andb_true_iff, forallb_forall, Forall_forall.
  split; intros [H1 H2]; split.
  - destruct s; [discriminate|discriminate].
  - intros c Hc. specialize (H2 c Hc). unfold lower_tchar in H2. apply andb_true_iff in H2.
    destruct H2 as [Ha Hb]. split; [exact Ha|]. destruct (is_upper c); [discriminate|reflexivity].
  - destruct s; [contradiction|reflexivity].
  - intros c Hc. destruct (H2 c Hc) as [Ha Hb]. unfold lower_tchar. rewrite Ha, Hb. reflexivity.
Qed.

Lemma value_ok_spec v : value_ok v = true <-> value_wf v.
Proof.
  unfold value_ok, value_wf, valid_value. rewrite forallb_forall, Forall_forall.
  split; intros H c Hc; specialize (H c Hc).
  - rewrite valid_value_char_spec in H. unfold quoted_string_cp. lia.
  - rewrite valid_value_char_spec. unfold quoted_string_cp in H. lia.
Qed.

Lemma to_lower_lower_tchar c : rfc7230_tchar c = true -> lower_tchar (to_lower c) = true.
Proof.
  unfold lower_tchar, rfc7230_tchar, to_lower, is_alnum, is_alpha, is_upper, is_lower, is_digit, TCHAR_PUNCT.
  cbn [memb]. intros H. destruct ((65 <=? c) && (c <=? 90)) eqn:E; lia.
Qed.

Lemma to_lower_idem c : to_lower (to_lower c) = to_lower c.
Proof. unfold to_lower, is_upper. destruct ((65 <=? c) && (c <=? 90)) eqn:E; [|rewrite E; reflexivity].
  replace ((65 <=? c + 32) && (c + 32 <=? 90)) with false by lia. reflexivity. Qed.

Lemma to_lower_fix c : is_upper c = false -> to_lower c = c.
Proof. unfold to_lower. intros ->. reflexivity. Qed.

Lemma lower_tchar_tchar c : lower_tchar c = true -> rfc7230_tchar c = true.
Proof. unfold lower_tchar. intros H. apply andb_true_iff in H. exact (proj1 H). Qed.

Lemma tchar_valid c : rfc7230_tchar c = true -> valid_value_char c = true.
Proof.
  rewrite valid_value_char_spec. unfold rfc7230_tchar, is_alnum, is_alpha, is_upper, is_lower, is_digit, TCHAR_PUNCT.
  cbn [memb]. lia.
Qed.

Lemma tchar_not_ws c : rfc7230_tchar c = true -> http_whitespace c = false.
Proof.
  rewrite http_whitespace_spec. unfold rfc7230_tchar, is_alnum, is_alpha, is_upper, is_lower, is_digit, TCHAR_PUNCT.
  cbn [memb]. lia.
Qed.

Lemma lower_token_tokens s : lower_token s = true -> tokens s = true.
Proof.
  unfold lower_token, tokens. intros H. apply andb_true_iff in H. destruct H as [_ H].
  rewrite forallb_forall in *. intros c Hc. exact (lower_tchar_tchar c (H c Hc)).
Qed.

Lemma lower_token_nonempty s : lower_token s = true -> is_empty s = false.
Proof. unfold lower_token. intros H. apply andb_true_iff in H. destruct (is_empty s); [destruct H; discriminate|reflexivity]. Qed.

Lemma lower_token_of_tokens s :
  tokens s = true -> is_empty s = false -> lower_token (to_ascii_lowercase s) = true.
Proof.
  unfold lower_token, tokens, to_ascii_lowercase. intros Ht Hne. apply andb_true_iff. split.
  - destruct s; [discriminate|reflexivity].
  - rewrite forallb_forall in *. intros c Hc. apply in_map_iff in Hc. destruct Hc as [x [<- Hx]].
    apply to_lower_lower_tchar. exact (Ht x Hx).
Qed.

Lemma lower_token_lowercase_id s : lower_token s = true -> to_ascii_lowercase s = s.
Proof.
  unfold lower_token, to_ascii_lowercase. intros H. apply andb_true_iff in H. destruct H as [_ H].
  induction s as [|c s IH]; [reflexivity|]. cbn [forallb map] in *. apply andb_true_iff in H. destruct H as [Hc Hs].
  unfold lower_tchar in Hc. apply andb_true_iff in Hc. destruct Hc as [_ Hu].
  rewrite to_lower_fix by (destruct (is_upper c); [discriminate|reflexivity]). f_equal. exact (IH Hs).
Qed.

Lemma bytes_eq_ic_lower s : bytes_eq_ignore_ascii_case (map to_lower s) s = true.
Proof.
  induction s as [|c s IH]; [reflexivity|]. cbn [map bytes_eq_ignore_ascii_case].
  rewrite to_lower_idem, N.eqb_refl, IH. reflexivity.
Qed.

Lemma eq_ic_lowercase name :
  tokens name = true -> eq_ignore_ascii_case (to_ascii_lowercase name) name = true.
Proof.
  intros Ht. unfold eq_ignore_ascii_case.
  assert (Hl : tokens (to_ascii_lowercase name) = true).
  { unfold tokens, to_ascii_lowercase in *. rewrite forallb_forall in *. intros c Hc.
    apply in_map_iff in Hc. destruct Hc as [x [<- Hx]]. apply lower_tchar_tchar, to_lower_lower_tchar. exact (Ht x Hx). }
  rewrite (utf8_encode_ascii _ (tokens_ascii _ Hl)), (utf8_encode_ascii _ (tokens_ascii _ Ht)).
  apply bytes_eq_ic_lower.
Qed.

Lemma existsb_false_all (A : Type) (f : A -> bool) l : existsb f l = false -> forall x, In x l -> f x = false.
Proof.
  intros H x Hx. destruct (f x) eqn:E; [|reflexivity].
  assert (Ht : existsb f l = true) by (apply existsb_exists; exists x; split; assumption). congruence.
Qed.

Lemma contains_false_not_in ps name :
  tokens name = true -> contains ps name = false -> ~ In (to_ascii_lowercase name) (map fst ps).
Proof.
  intros Ht Hc Hin. apply in_map_iff in Hin. destruct Hin as [p [Hp Hin]].
  unfold contains in Hc. pose proof (existsb_false_all _ _ _ Hc p Hin) as Hf. cbv beta in Hf.
  rewrite Hp, (eq_ic_lowercase name Ht) in Hf. discriminate.
Qed.

Lemma NoDup_snoc (A : Type) (l : list A) a : NoDup l -> ~ In a l -> NoDup (l ++ [a]).
Proof.
  induction l as [|x l IH]; intros Hnd Hni; cbn [app].
  - constructor; [intros []|constructor].
  - inversion Hnd as [|? ? Hx Hl]; subst. constructor.
    + intros Hin. apply in_app_or in Hin. destruct Hin as [Hin|[->|[]]]; [exact (Hx Hin)|]. apply Hni. left. reflexivity.
    + apply IH; [exact Hl|]. intros Hin. apply Hni. right. exact Hin.
Qed.

Lemma before_semicolon_forallb f v : forallb f v = true -> forallb f (before_semicolon v) = true.
Proof.
  induction v as [|c v IH]; cbn [forallb before_semicolon]; intros H; [reflexivity|].
  apply andb_true_iff in H. destruct H as [Hc Hv]. destruct (c =? 59); [reflexivity|].
  cbn [forallb]. rewrite Hc, (IH Hv). reflexivity.
Qed.

(* the invariant of the parameter loop *)
Definition param_ok (p : list N * list N) : Prop :=
  lower_token (fst p) = true /\ value_ok (snd p) = true /\ usv_list (snd p).
Definition params_inv (ps : plist) : Prop := Forall param_ok ps /\ NoDup (map fst ps).

Lemma params_inv_push ps name value :
  params_inv ps -> p_name_valid ps name = true -> value_ok value = true -> usv_list value ->
  params_inv (ps ++ [(to_ascii_lowercase name, value)]).
Proof.
  intros [Hall Hnd] Hnv Hv Hu. unfold p_name_valid in Hnv.
  apply andb_true_iff in Hnv. destruct Hnv as [Hnv Hc]. apply andb_true_iff in Hnv. destruct Hnv as [Hne Ht].
  split.
  - apply Forall_app. split; [exact Hall|]. constructor; [|constructor]. unfold param_ok. cbn [fst snd].
    split; [|split; assumption]. apply lower_token_of_tokens; [exact Ht|]. destruct (is_empty name); [discriminate|reflexivity].
  - rewrite map_app. cbn [map fst]. apply NoDup_snoc; [exact Hnd|].
    apply contains_false_not_in; [exact Ht|]. destruct (contains ps name); [discriminate|reflexivity].
Qed.

Lemma strip_prefix_quote_some value stripped :
  strip_prefix_quote value = Some stripped -> value = 34 :: stripped.
Proof.
  unfold strip_prefix_quote. destruct value as [|c r]; [discriminate|].
  destruct (c =? 34) eqn:E; [|discriminate]. intros H. inversion H; subst. f_equal. lia.
Qed.

Lemma p_params_loop_inv fuel : forall pieces ps r,
  Forall usv_list pieces -> params_inv ps -> p_params_loop fuel pieces ps = Ok r -> params_inv r.
Proof.
  induction fuel as [|fuel IH]; intros pieces ps r Hp Hinv Hr; [discriminate|].
  cbn [p_params_loop] in Hr. destruct pieces as [|piece rest]; [inversion Hr; subst; exact Hinv|].
  inversion Hp as [|? ? Hpiece Hrest]; subst.
  pose proof (split_once_Forall is_usv 61 (trim_start piece) (trim_start_Forall is_usv piece Hpiece)) as [Hn Hv].
  destruct (split_once 61 (trim_start piece)) as [name value]. cbn [fst snd] in Hn, Hv.
  destruct value as [value|]; [|exact (IH rest ps r Hrest Hinv Hr)].
  destruct (strip_prefix_quote value) as [stripped|] eqn:Es.
  - apply strip_prefix_quote_some in Es. subst value. inversion Hv as [|? ? _ Hst]; subst.
    pose proof (scan_quoted_rest_Forall usv_list rest stripped [] Hrest) as Hr'.
    destruct (scan_quoted_facts rest stripped []) as [w [k [E [HP HQ]]]].
    rewrite E in Hr, Hr'. cbn [rev app snd] in Hr, Hr'.
    destruct (negb (p_name_valid ps name) || negb (valid_value (34 :: stripped))) eqn:Eg;
      [exact (IH _ ps r Hr' Hinv Hr)|].
    apply orb_false_iff in Eg. destruct Eg as [Eg1 Eg2].
    apply negb_false_iff in Eg1. apply negb_false_iff in Eg2.
    refine (IH _ _ r Hr' _ Hr). apply params_inv_push; [exact Hinv|exact Eg1| |].
    + unfold value_ok, valid_value. apply forallb_forall. apply Forall_forall.
      apply (HQ (fun c => valid_value_char c = true)).
      * rewrite valid_value_char_spec. reflexivity.
      * unfold valid_value in Eg2. cbn [forallb] in Eg2. apply andb_true_iff in Eg2. destruct Eg2 as [_ Eg2].
        apply Forall_forall. apply forallb_forall. exact Eg2.
    + apply (HP is_usv usv_59 usv_92 Hrest Hst).
  - destruct (is_empty (trim_end value)); [exact (IH rest ps r Hrest Hinv Hr)|].
    destruct (negb (p_name_valid ps name) || negb (valid_value (trim_end value))) eqn:Eg;
      [exact (IH _ ps r Hrest Hinv Hr)|].
    apply orb_false_iff in Eg. destruct Eg as [Eg1 Eg2].
    apply negb_false_iff in Eg1. apply negb_false_iff in Eg2.
    refine (IH _ _ r Hrest _ Hr). apply params_inv_push; [exact Hinv|exact Eg1| |].
    + unfold value_ok, valid_value. apply before_semicolon_forallb. exact Eg2.
    + apply trim_end_Forall. exact Hv.
Qed.

Lemma params_inv_nil : params_inv [].
Proof. split; constructor. Qed.

Lemma p_parse_parameters_inv s r : usv_list s -> p_parse_parameters s [] = Ok r -> params_inv r.
Proof.
  intros H. unfold p_parse_parameters.
  pose proof (split_all_Forall is_usv 59 s H) as [Hp Hps].
  destruct (split_all 59 s) as [p ps]. cbn [fst snd] in Hp, Hps.
  apply p_params_loop_inv; [constructor; assumption|exact params_inv_nil].
Qed.

(* what a successful parse looks like *)
Lemma p_parse_some s m :
  p_parse s = Ok (Some m) ->
  exists type_ subtype rest,
    split_once 47 (trim_matches s) = (type_, Some rest)
    /\ tokens type_ = true /\ is_empty type_ = false
    /\ tokens (trim_end subtype) = true /\ is_empty (trim_end subtype) = false
    /\ m_type m = to_ascii_lowercase type_ /\ m_subtype m = to_ascii_lowercase (trim_end subtype)
    /\ ((split_once 59 rest = (subtype, None) /\ m_params m = [])
        \/ exists rest2, split_once 59 rest = (subtype, Some rest2) /\ p_parse_parameters rest2 [] = Ok (m_params m)).
Proof.
  unfold p_parse. intros H.
  destruct (split_once 47 (trim_matches s)) as [type_ rest] eqn:E1.
  destruct (tokens type_ && negb (is_empty type_)) eqn:Et; cbn [negb] in H; [|discriminate].
  destruct rest as [rest|]; [|discriminate].
  destruct (split_once 59 rest) as [subtype rest2] eqn:E2.
  destruct (tokens (trim_end subtype) && negb (is_empty (trim_end subtype))) eqn:Est; cbn [negb] in H; [|discriminate].
  apply andb_true_iff in Et. destruct Et as [Et1 Et2]. apply negb_true_iff in Et2.
  apply andb_true_iff in Est. destruct Est as [Est1 Est2]. apply negb_true_iff in Est2.
  exists type_, subtype, rest. split; [reflexivity|]. do 4 (split; [assumption|]).
  destruct rest2 as [rest2|].
  - destruct (p_parse_parameters rest2 []) as [r| |] eqn:Ep; cbn [bind] in H; try discriminate.
    inversion H; subst. cbn [m_type m_subtype m_params]. split; [reflexivity|]. split; [reflexivity|].
    right. exists rest2. split; [exact E2|exact Ep].
  - cbn [bind] in H. inversion H; subst. cbn [m_type m_subtype m_params]. split; [reflexivity|]. split; [reflexivity|].
    left. split; [exact E2|reflexivity].
Qed.

Lemma p_parse_normal s m :
  usv_list s -> p_parse s = Ok (Some m) ->
  lower_token (m_type m) = true /\ lower_token (m_subtype m) = true /\ params_inv (m_params m).
Proof.
  intros Hs H. destruct (p_parse_some s m H) as [type_ [subtype [rest [E1 [Ht1 [Ht2 [Hs1 [Hs2 [Em1 [Em2 Hp]]]]]]]]]].
  rewrite Em1, Em2. split; [apply lower_token_of_tokens; assumption|]. split; [apply lower_token_of_tokens; assumption|].
  destruct Hp as [[_ Hp]|[rest2 [E2 Hp]]].
  - rewrite Hp. exact params_inv_nil.
  - apply (p_parse_parameters_inv rest2); [|exact Hp].
    assert (Htr : usv_list (trim_matches s)).
    { unfold trim_matches. apply trim_end_Forall, trim_start_Forall. exact Hs. }
    pose proof (split_once_Forall is_usv 47 _ Htr) as [_ Hrest]. rewrite E1 in Hrest. cbn [snd] in Hrest.
    pose proof (split_once_Forall is_usv 59 _ Hrest) as [_ Hrest2]. rewrite E2 in Hrest2. exact Hrest2.
Qed.

Lemma lower_token_usv s : lower_token s = true -> usv_list s.
Proof. intros H. apply ascii_usv, tokens_ascii, lower_token_tokens. exact H. Qed.

Lemma p_parse_usv s m : usv_list s -> p_parse s = Ok (Some m) -> usv_mime m.
Proof.
  intros Hs H. destruct (p_parse_normal s m Hs H) as [Ht [Hst [Hall _]]].
  split; [exact (lower_token_usv _ Ht)|]. split; [exact (lower_token_usv _ Hst)|].
  unfold usv_params. eapply Forall_impl; [|exact Hall]. intros p [Hn [_ Hv]].
  split; [exact (lower_token_usv _ Hn)|exact Hv].
Qed.

(* C19_normal on the model *)
Theorem parse_normal s m :
  usv_list s -> parse s = Ok (Some m) ->
  lower_http_token (m_type m) /\ lower_http_token (m_subtype m)
  /\ Forall (fun p => lower_http_token (fst p) /\ value_wf (snd p)) (m_params m)
  /\ NoDup (map fst (m_params m)).
Proof.
  intros Hs H. rewrite (parse_spec s Hs) in H.
  destruct (p_parse_normal s m Hs H) as [Ht [Hst [Hall Hnd]]].
  split; [apply lower_token_spec; exact Ht|]. split; [apply lower_token_spec; exact Hst|]. split; [|exact Hnd].
  eapply Forall_impl; [|exact Hall]. intros p [Hn [Hv _]].
  split; [apply lower_token_spec; exact Hn|apply value_ok_spec; exact Hv].
Qed.

(* get_parameter finds exactly the pairs of the list (names are unique) *)
Lemma get_parameter_in ps : NoDup (map fst ps) -> forall n v, In (n, v) ps <-> get_parameter ps n = Some v.
Proof.
  induction ps as [|[n0 v0] ps IH]; intros Hnd n v; cbn [get_parameter In].
  - split; [intros []|discriminate].
  - cbn [map fst] in Hnd. inversion Hnd as [|? ? Hni Hnd']; subst.
    destruct (list_eqb n n0) eqn:E.
    + apply list_eqb_spec in E. subst n0. split.
      * intros [Heq|Hin]; [inversion Heq; reflexivity|]. exfalso. apply Hni. apply in_map_iff. exists (n, v). split; [reflexivity|exact Hin].
      * intros Heq. inversion Heq. left. reflexivity.
    + rewrite <- (IH Hnd' n v). split; [|intros Hin; right; exact Hin].
      intros [Heq|Hin]; [|exact Hin]. inversion Heq; subst. rewrite (proj2 (list_eqb_spec n n) eq_refl) in E. discriminate.
Qed.
