(* Proofs/C08_StdFileClasses.v - towards containment of the crate's join for a FILE base on EVERY class of the C01
   equivalence that is stated for a file base record (Proofs/C01_EqFileBase.v, C01_EqFileBase2.v, C01_EqFileOne.v,
   C01_EqFileRel2.v); the theorems themselves are C08_std_contain_file_classes_agree and
   C08_std_contain_file_same_classes_agree in Properties/C08.v, through C08_StdFile.class_front_transfer.
   (1) in_class_file_base_any = the disjunction of the nine classes.  With the Standard-side premise std_contain_pre
       (no scheme, no two leading slash characters) only the four scheme-less classes rel_path, rel_one,
       rel_one_carry, rel_drive can be met (the "file:"-prefixed classes same_* have a scheme, rel2 has two leading
       slash characters: in_class_file_rel2_two), so no host hypothesis is needed.
   (2) the "file:"-prefixed references ("file:x", "file:/x", "file:C|/y" against a file base), which the premise of
       (1) excludes: the Standard keeps scheme, username, password, host, port of the base (std_contain_file_same);
       C01's four same_* classes meet its premise (in_class_file_same_pre). *)
From RU Require Import Base.Prelude Base.Utf8 Model.AsciiSet Gen.Tables Model.PercentEncoding Model.HostT Model.UrlRecord
  Model.Parser Model.WF Model.KnownC08 Model.KnownC01 Spec.Whatwg Proofs.ListN
  Proofs.C01_EqRun Proofs.C01_EqRef Proofs.C01_EqApi Proofs.C01_EqRel Proofs.C01_EqRelArms Proofs.C01_EqAsm
  Proofs.C01_EqShape Proofs.C01_EqSpSpec Proofs.C01_EqFileSpec Proofs.C01_EqFileBase Proofs.C01_EqFileBase2
  Proofs.C01_EqFileOne Proofs.C01_EqFileRel2
  Proofs.C08_Std Proofs.C08_StdFile Proofs.C08_StdFileSlash.
Open Scope N_scope.
Open Scope list_scope.

(* every class of the C01 equivalence that is stated for a file base record *)
Definition in_class_file_base_any (sb : spec_url) (input : list N) : bool :=
  in_class_file_rel_path sb input || in_class_file_rel_one sb input || in_class_file_rel_one_carry sb input
  || in_class_file_rel_drive sb input || in_class_file_rel2 sb input
  || in_class_file_same_path sb input || in_class_file_same_one sb input || in_class_file_same_one_carry sb input
  || in_class_file_same_drive sb input.

(* the four "file:"-prefixed classes *)
Definition in_class_file_same_any (sb : spec_url) (input : list N) : bool :=
  in_class_file_same_path sb input || in_class_file_same_one sb input || in_class_file_same_one_carry sb input
  || in_class_file_same_drive sb input.

Lemma in_class_file_rel_path_base sb input : in_class_file_rel_path sb input = true -> file_base_ok sb = true.
Proof.
  unfold in_class_file_rel_path. intros H. apply andb_true_iff in H. destruct H as [H _].
  apply andb_true_iff in H. destruct H as [H _]. exact H.
Qed.

Lemma in_class_file_same_path_base sb input : in_class_file_same_path sb input = true -> file_base_ok sb = true.
Proof. unfold in_class_file_same_path. intros H. apply andb_true_iff in H. destruct H as [H _]. exact H. Qed.

(* rel2 has two leading slash characters: excluded by the Standard-side premise against a file base *)
Lemma in_class_file_rel2_two sb input : in_class_file_rel2 sb input = true ->
  two_leading_slashes (is_special_scheme (su_scheme sb)) (spec_clean input) = true.
Proof.
  unfold in_class_file_rel2. intros H. apply andb_true_iff in H. destruct H as [H Hm].
  apply andb_true_iff in H. destruct H as [_ Hf]. apply list_eqb_spec in Hf. rewrite Hf.
  change (is_special_scheme str_file) with true.
  destruct (spec_clean input) as [|c1 [|c2 T]]; [discriminate Hm | discriminate Hm|].
  apply andb_true_iff in Hm. destruct Hm as [Hm _]. apply andb_true_iff in Hm. destruct Hm as [E1 E2].
  cbn [two_leading_slashes]. unfold is_ref_slash. rewrite !andb_true_r.
  unfold is_sl in E1, E2. rewrite E1, E2. reflexivity.
Qed.


(* (2) the "file:"-prefixed references against a file base *)
(* the text behind "file:" is not empty and: starts with a Windows drive letter ("file:C|/y"), or has exactly one
   leading '/' or '\' ("file:/x"), or is path-relative - first character not '/', '\', '?', '#' - and the last segment of
   the base path is not a normalized Windows drive letter ("file:x") *)
Definition std_file_same_pre (sb : spec_url) (l : list N) : bool :=
  match spec_scheme l with
  | Some (sch, c :: t) =>
      list_eqb sch str_file
      && (starts_with_windows_drive_letter (c :: t)
          || (is_sl c && no_sl_head t)
          || (negb (is_sl c) && negb (c =? 63) && negb (c =? 35) && last_not_nwdl (Whatwg.path_segments sb)))
  | _ => false
  end.

Section StdSame.
Variable shp : bool -> list N -> option spec_host.

(* the Standard does NOT treat "file:x" / "file:/x" as absolute: host (and the empty credentials / port) of the file
   base are kept *)
Theorem std_contain_file_same input sb : spec_valid sb -> has_opaque_path sb = false ->
  list_eqb (su_scheme sb) str_file = true -> std_file_same_pre sb (spec_clean input) = true ->
  exists su, spec_basic_url_parse shp input (Some sb) = BDone su /\ spec_same_front sb su.
Proof.
  intros V Hop Hf Hpre. unfold std_file_same_pre in Hpre.
  destruct (spec_scheme (spec_clean input)) as [[sch [|c t]]|] eqn:Es; try discriminate Hpre.
  apply andb_true_iff in Hpre. destruct Hpre as [Hsch Hpre]. apply list_eqb_spec in Hsch. subst sch.
  pose proof Hf as Hsf. apply list_eqb_spec in Hsf.
  destruct (starts_with_windows_drive_letter (c :: t)) eqn:Hw.
  { eexists. split; [exact (spec_file_same_drive shp sb input c t Es Hw Hf)|]. apply file_tail_front; [exact Hsf | exact V]. }
  cbn [orb] in Hpre. destruct (is_sl c) eqn:Esl.
  { cbn [andb negb orb] in Hpre. rewrite orb_false_r in Hpre.
    eexists. split; [exact (spec_file_same_one shp sb input c t Es Esl Hpre Hop Hf)|].
    apply file_tail_front; [exact Hsf | exact V]. }
  cbn [andb negb orb] in Hpre. apply andb_true_iff in Hpre. destruct Hpre as [Hpre Hl].
  apply andb_true_iff in Hpre. destruct Hpre as [E63 E35]. apply negb_true_iff in E63. apply negb_true_iff in E35.
  eexists. split; [exact (spec_file_same_path shp sb input c t Es Hop Hf Esl E63 E35 Hw Hl)|].
  apply file_tail_front; [exact Hsf | exact V].
Qed.
End StdSame.

(* "file:" followed by a text with exactly one leading '/' or '\' *)
Lemma same_one_pre (ok : list N -> bool) sb input :
  (forall R, ok R = true -> has_opaque_path sb = false /\ list_eqb (su_scheme sb) str_file = true /\ std_file_one_pre R = true) ->
  match spec_scheme (spec_clean input) with Some (sch, R) => list_eqb sch str_file && ok R | None => false end = true ->
  has_opaque_path sb = false /\ list_eqb (su_scheme sb) str_file = true /\ std_file_same_pre sb (spec_clean input) = true.
Proof.
  intros Hok Hc. unfold std_file_same_pre.
  destruct (spec_scheme (spec_clean input)) as [[sch R]|]; [|discriminate Hc].
  apply andb_true_iff in Hc. destruct Hc as [Hsch Hc]. destruct (Hok R Hc) as (Hop & Hf & Hone).
  split; [exact Hop|]. split; [exact Hf|]. unfold std_file_one_pre in Hone.
  destruct R as [|c1 R1]; [discriminate Hone|]. rewrite Hsch, Hone.
  destruct (starts_with_windows_drive_letter (c1 :: R1)); reflexivity.
Qed.

(* C01's four "file:"-prefixed classes meet the premise *)
Lemma in_class_file_same_pre sb input : in_class_file_same_any sb input = true ->
  has_opaque_path sb = false /\ list_eqb (su_scheme sb) str_file = true /\ std_file_same_pre sb (spec_clean input) = true.
Proof.
  unfold in_class_file_same_any. intros Hc. repeat rewrite orb_true_iff in Hc. destruct Hc as [[[Hc|Hc]|Hc]|Hc].
  - destruct (file_base_ok_facts sb (in_class_file_same_path_base sb input Hc)) as (Hop & Hsf & _ & _ & Hl).
    split; [exact Hop|]. split; [rewrite Hsf; reflexivity|].
    unfold in_class_file_same_path in Hc. apply andb_true_iff in Hc. destruct Hc as [_ Hm].
    unfold std_file_same_pre. destruct (spec_scheme (spec_clean input)) as [[sch [|c t]]|]; try discriminate Hm.
    apply andb_true_iff in Hm. destruct Hm as [Hm _]. apply andb_true_iff in Hm. destruct Hm as [Hm _].
    apply andb_true_iff in Hm. destruct Hm as [Hm Hw]. apply andb_true_iff in Hm. destruct Hm as [Hm H35].
    apply andb_true_iff in Hm. destruct Hm as [Hm H63]. apply andb_true_iff in Hm. destruct Hm as [Hsch Hsl].
    apply negb_true_iff in Hsl. apply negb_true_iff in Hw. rewrite Hsch, Hsl, H63, H35, Hl, Hw. reflexivity.
  - unfold in_class_file_same_one in Hc. apply (same_one_pre (file_one_ok sb)); [|exact Hc].
    intros R H. apply file_one_any_facts. rewrite H. reflexivity.
  - unfold in_class_file_same_one_carry in Hc. apply (same_one_pre (file_one_carry_ok sb)); [|exact Hc].
    intros R H. apply file_one_any_facts. rewrite H. apply orb_true_r.
  - unfold in_class_file_same_drive in Hc. unfold std_file_same_pre.
    destruct (spec_scheme (spec_clean input)) as [[sch R]|]; [|discriminate Hc].
    apply andb_true_iff in Hc. destruct Hc as [Hsch Hok].
    destruct (file_drive_ok_facts sb R Hok) as (Hop & Hf & _ & Hw & _).
    split; [exact Hop|]. split; [exact Hf|].
    destruct R as [|c t]; [discriminate Hw|]. rewrite Hsch, Hw. reflexivity.
Qed.


(* non-vacuity *)
From RU Require Import Model.Host Proofs.C09_Host Spec.WhatwgHostParse.
(* base parsed by both parsers; every reference is in the class `cls`, the flag says whether it meets std_contain_pre;
   both sides succeed, the Standard's href is the model's serialization and equals the expected text; when the flag is
   set the host text is the base's *)
Definition std_fs_classes_case (cls : spec_url -> list N -> bool) (base : list N) (refs : list (list N * bool * list N)) : bool :=
  let idna := ex_idna_clean in
  match parse_url true (host_parse idna) host_parse_opaque host_display None None base,
        spec_basic_url_parse (spec_host_parser idna) base None with
  | POk b, BDone sb =>
      spec_base_ok sb
      && forallb (fun re =>
           let r := fst (fst re) in
           cls sb r && in_class_file_base_any sb r && Bool.eqb (std_contain_pre sb (spec_clean r)) (snd (fst re))
           && match spec_basic_url_parse (spec_host_parser idna) r (Some sb),
                    parse_url true (host_parse idna) host_parse_opaque host_display None (Some b) r with
              | BDone su, POk u' =>
                  (negb (snd (fst re)) || list_eqb (get_host spec_host_serializer su) (get_host spec_host_serializer sb))
                  && list_eqb (get_href spec_host_serializer su) (ser u')
                  && list_eqb (ser u') (snd re)
              | _, _ => false
              end) refs
  | _, _ => false
  end.

From Coq Require Import String.
From RU Require Import Proofs.C02_Reach.
Open Scope string_scope.
(* (2) the Standard side alone: every reference meets std_file_same_pre against the Standard's parse result of the base,
   the Standard succeeds, keeps scheme / host / port and gives the expected href *)
Definition std_fs_same_case (base : list N) (refs : list (list N * list N)) : bool :=
  let idna := ex_idna_clean in
  match spec_basic_url_parse (spec_host_parser idna) base None with
  | BDone sb =>
      negb (has_opaque_path sb) && list_eqb (su_scheme sb) str_file
      && forallb (fun re =>
           std_file_same_pre sb (spec_clean (fst re)) && negb (std_contain_pre sb (spec_clean (fst re)))
           && match spec_basic_url_parse (spec_host_parser idna) (fst re) (Some sb) with
              | BDone su =>
                  list_eqb (su_scheme su) (su_scheme sb)
                  && list_eqb (get_host spec_host_serializer su) (get_host spec_host_serializer sb)
                  && list_eqb (get_port su) (get_port sb)
                  && list_eqb (get_href spec_host_serializer su) (snd re)
              | _ => false
              end) refs
  | _ => false
  end.

(* (2) with the crate: references in in_class_file_same_any; both succeed, host text kept, the Standard's href is the
   model's serialization and equals the expected text *)
Definition std_fs_same_agree_case (base : list N) (refs : list (list N * list N)) : bool :=
  let idna := ex_idna_clean in
  match parse_url true (host_parse idna) host_parse_opaque host_display None None base,
        spec_basic_url_parse (spec_host_parser idna) base None with
  | POk b, BDone sb =>
      spec_base_ok sb
      && forallb (fun re =>
           in_class_file_same_any sb (fst re)
           && match spec_basic_url_parse (spec_host_parser idna) (fst re) (Some sb),
                    parse_url true (host_parse idna) host_parse_opaque host_display None (Some b) (fst re) with
              | BDone su, POk u' =>
                  list_eqb (get_host spec_host_serializer su) (get_host spec_host_serializer sb)
                  && list_eqb (get_href spec_host_serializer su) (ser u')
                  && list_eqb (ser u') (snd re)
              | _, _ => false
              end) refs
  | _, _ => false
  end.

(* where the crate leaves the Standard on these shapes (the drive-letter branch of parse_file again, F-C01-1 / F-C08-1):
   "file:C|/y" against a file base WITH a host meets std_file_same_pre, the Standard keeps the host, the model of
   Url::join drops it *)
Definition std_file_same_diverge_case (base r std_href model_ser : list N) : bool :=
  let idna := ex_idna_clean in
  match parse_url true (host_parse idna) host_parse_opaque host_display None None base,
        spec_basic_url_parse (spec_host_parser idna) base None with
  | POk b, BDone sb =>
      std_file_same_pre sb (spec_clean r)
      && match spec_basic_url_parse (spec_host_parser idna) r (Some sb),
               parse_url true (host_parse idna) host_parse_opaque host_display None (Some b) r with
         | BDone su, POk u' =>
             list_eqb (get_href spec_host_serializer su) std_href && list_eqb (ser u') model_ser
             && list_eqb (get_host spec_host_serializer su) (get_host spec_host_serializer sb)
             && negb (list_eqb std_href model_ser)
         | _, _ => false
         end
  | _, _ => false
  end.

