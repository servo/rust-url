(* Proofs/C17_Header.v - the header of a data: URL, byte level.  For a header h (the bytes before the
   first comma, as DataUrl::process sees them) without '?', what parse_header hands to the MIME parser,
   and its base64 flag, are what steps 6, 11 (the condition and 11.4-11.6) and 12 of the Fetch
   processor compute from the C0-control percent-encoding of h without ASCII tab / newlines (which is
   what the URL serializer writes for an opaque path). *)
From RU Require Import Base.Prelude Model.AsciiSet Gen.Tables Model.PercentEncoding
  Model.Parser Model.Mime Model.DataUrl
  Spec.Infra Spec.MimeSniff Spec.Fetch
  Proofs.C14_Enc Proofs.C02_Enc Proofs.C17_Tables Proofs.C17_Total Proofs.C17_Bridge.

Local Notation nt := C02_Enc.not_tnl.
(* S is the C0-control percent-encode set throughout this file (the notation hides nat's successor) *)
Local Notation S := T_CONTROLS.

(* steps 6, 11 (condition, 11.4-11.6) and 12 of the processor, on mimeType *)
Definition fetch_step12 (mimeType : list N) : list N :=
  match mimeType with
  | c :: _ => if c =? 59 then text_plain ++ mimeType else mimeType
  | [] => mimeType
  end.

Definition fetch_header (mimeType : list N) : list N * bool :=
  let m6 := strip_leading_and_trailing_ascii_whitespace mimeType in
  match ends_with_base64_marker m6 with
  | Some m' => (fetch_step12 m', true)
  | None => (fetch_step12 m6, false)
  end.

(* Fetch.process in terms of fetch_header *)
Definition fetch_process_alt (serialization : list N) : option (mime_type * list N) :=
  match collect_until_comma (remove_data_colon [100; 97; 116; 97; 58] serialization) with
  | (_, None) => None
  | (mimeType, Some encodedBody) =>
      let body := string_percent_decode encodedBody in
      match (if snd (fetch_header mimeType) then forgiving_base64_decode body else Some body) with
      | None => None
      | Some body' =>
          Some (match parse_a_mime_type (fst (fetch_header mimeType)) with
                | Some r => r
                | None => text_plain_us_ascii
                end, body')
      end
  end.

Lemma fetch_process_alt_eq ser : Fetch.process ser = fetch_process_alt ser.
Proof.
  unfold Fetch.process, fetch_process_alt, fetch_header, fetch_step12.
  destruct (collect_until_comma (remove_data_colon [100; 97; 116; 97; 58] ser)) as [mt [eb|]]; [|reflexivity].
  destruct (ends_with_base64_marker (strip_leading_and_trailing_ascii_whitespace mt)) as [m'|]; cbn [fst snd].
  - destruct (forgiving_base64_decode (string_percent_decode eb)); reflexivity.
  - reflexivity.
Qed.

Lemma filter_rev' (f : N -> bool) l : filter f (rev l) = rev (filter f l).
Proof.
  induction l as [|c r IH]; [reflexivity|]. cbn [rev filter]. rewrite filter_app, IH. cbn [filter].
  destruct (f c); [reflexivity|]. rewrite app_nil_r. reflexivity.
Qed.

Lemma rev_flat_map (f : N -> list N) l : rev (flat_map f l) = flat_map (fun b => rev (f b)) (rev l).
Proof.
  induction l as [|c r IH]; [reflexivity|]. cbn [flat_map rev]. rewrite rev_app_distr, IH, flat_map_app.
  cbn [flat_map]. rewrite app_nil_r. reflexivity.
Qed.

Definition sp (c : N) : bool := c =? 32.

(* the C0-control set on bytes *)
Lemma se_spec b : b < 256 -> should_encode S b = (b <? 32) || (126 <? b).
Proof.
  intros Hb. rewrite <- hdr_enc_is_controls by exact Hb. unfold in_ranges, T_DU_HDR_ENC. cbn [existsb fst snd]. lia.
Qed.

(* R: the reversed percent-encoding, byte by byte, so that rev (encode S x) = R (rev x): the Standard
   looks for the base64 marker at the end of the encoded text, the crate scans the raw header from its
   end, and R turns both into scans from the front.  The same device as rencq / RQ in C17_HeaderQ.v
   (query set) and ru / RU in C17_Known.v (UTF-8 encoding). *)
Definition renc (b : N) : list N := rev (enc1 S b).
Definition R (y : list N) : list N := flat_map renc y.

Lemma rev_encode x : rev (encode S x) = R (rev x).
Proof. unfold encode, R. rewrite rev_flat_map. reflexivity. Qed.

Lemma rev_R y : rev (R y) = encode S (rev y).
Proof. rewrite <- (rev_involutive y) at 1. rewrite <- rev_encode, rev_involutive. reflexivity. Qed.

Lemma R_cons b y : R (b :: y) = renc b ++ R y.
Proof. reflexivity. Qed.

Lemma renc_plain b : should_encode S b = false -> renc b = [b].
Proof. intros E. unfold renc, enc1. rewrite E. reflexivity. Qed.

Lemma renc_enc b : should_encode S b = true -> renc b = [hex_upper (b mod 16); hex_upper (b / 16); 37].
Proof. intros E. unfold renc, enc1. rewrite E. reflexivity. Qed.

Lemma hex_rng d : d < 16 -> (48 <= hex_upper d /\ hex_upper d <= 57) \/ (65 <= hex_upper d /\ hex_upper d <= 70).
Proof. unfold hex_upper. intros H. destruct (d <? 10) eqn:E; lia. Qed.

(* trimming {space, tab, LF, CR} then dropping tab / newlines = dropping tab / newlines then
   trimming spaces *)
Lemma filter_drop_ht l : filter nt (drop_while is_header_trim l) = drop_while sp (filter nt l).
Proof.
  induction l as [|c r IH]; [reflexivity|]. cbn [drop_while filter]. rewrite is_header_trim_spec.
  unfold C02_Enc.not_tnl. change (is_tnl c) with (tnl c). unfold sp.
  destruct (tnl c) eqn:Et; cbn [negb].
  - rewrite orb_true_r. exact IH.
  - rewrite orb_false_r. cbn [drop_while]. destruct (c =? 32) eqn:E32; [exact IH|].
    cbn [filter]. unfold C02_Enc.not_tnl. change (is_tnl c) with (tnl c). rewrite Et. reflexivity.
Qed.

Lemma filter_trim_ht l :
  filter nt (drop_while_end is_header_trim (drop_while is_header_trim l))
  = drop_while_end sp (drop_while sp (filter nt l)).
Proof.
  unfold drop_while_end. rewrite filter_rev', filter_drop_ht, filter_rev', filter_drop_ht. reflexivity.
Qed.

(* stripping ASCII whitespace from the encoded text = trimming spaces before encoding *)
Lemma slw_encode_app x w : bytes x -> strip_leading_ws w = w ->
  strip_leading_ws (encode S x ++ w) = encode S (drop_while sp x) ++ w.
Proof.
  induction x as [|c r IH]; intros Hb Hw; [exact Hw|]. inversion Hb as [|? ? Hc Hr]; subst. unfold is_byte in Hc.
  rewrite encode_cons, <- app_assoc. unfold enc1. cbn [drop_while]. unfold sp. pose proof (se_spec c Hc) as Hs.
  destruct (should_encode S c) eqn:E.
  - replace (c =? 32) with false by lia. rewrite encode_cons, <- app_assoc. unfold enc1. rewrite E. reflexivity.
  - cbn [app strip_leading_ws]. unfold is_ascii_whitespace.
    destruct (c =? 32) eqn:E32.
    + rewrite !orb_true_r. exact (IH Hr Hw).
    + replace ((c =? 9) || (c =? 10) || (c =? 12) || (c =? 13) || false) with false by lia.
      rewrite encode_cons, <- app_assoc. unfold enc1. rewrite E. reflexivity.
Qed.

Lemma slw_encode x : bytes x -> strip_leading_ws (encode S x) = encode S (drop_while sp x).
Proof. intros Hb. pose proof (slw_encode_app x [] Hb eq_refl) as H. rewrite !app_nil_r in H. exact H. Qed.

Lemma slw_R y : bytes y -> strip_leading_ws (R y) = R (drop_while sp y).
Proof.
  induction y as [|c r IH]; intros Hb; [reflexivity|]. inversion Hb as [|? ? Hc Hr]; subst. unfold is_byte in Hc.
  rewrite R_cons. cbn [drop_while]. unfold sp. pose proof (se_spec c Hc) as Hs.
  destruct (should_encode S c) eqn:E.
  - replace (c =? 32) with false by lia. rewrite R_cons. rewrite (renc_enc c E).
    cbn [app strip_leading_ws]. unfold is_ascii_whitespace.
    assert (Hm : c mod 16 < 16) by lia. pose proof (hex_rng _ Hm) as Hh.
    replace ((hex_upper (c mod 16) =? 9) || (hex_upper (c mod 16) =? 10) || (hex_upper (c mod 16) =? 12)
             || (hex_upper (c mod 16) =? 13) || (hex_upper (c mod 16) =? 32)) with false by lia.
    reflexivity.
  - rewrite (renc_plain c E). cbn [app strip_leading_ws]. unfold is_ascii_whitespace.
    destruct (c =? 32) eqn:E32.
    + rewrite !orb_true_r. exact (IH Hr).
    + replace ((c =? 9) || (c =? 10) || (c =? 12) || (c =? 13) || false) with false by lia.
      rewrite R_cons, (renc_plain c E). reflexivity.
Qed.

Lemma bytes_rev l : bytes l -> bytes (rev l).
Proof. unfold bytes. intros H. apply Forall_rev. exact H. Qed.

Lemma strip_ws_encode x : bytes x ->
  strip_leading_and_trailing_ascii_whitespace (encode S x) = encode S (drop_while_end sp (drop_while sp x)).
Proof.
  intros Hb. unfold strip_leading_and_trailing_ascii_whitespace, drop_while_end.
  rewrite slw_encode by exact Hb. rewrite rev_encode.
  rewrite slw_R by (apply bytes_rev, bytes_drop_while; exact Hb). rewrite rev_R. reflexivity.
Qed.

(* the base64 marker, read on the reversed text: "46esab" case-insensitively, spaces, ';' *)
Definition marker_tail (r : list N) : option (list N) :=
  match drop_spaces r with
  | c :: r' => if c =? 59 then Some r' else None
  | [] => None
  end.
Definition marker_rev (y : list N) : option (list N) :=
  match strip_prefix_ci base64_reversed y with
  | None => None
  | Some r => marker_tail r
  end.

Lemma ewbm_rev m : ends_with_base64_marker m = option_map (@rev N) (marker_rev (rev m)).
Proof.
  unfold ends_with_base64_marker, marker_rev, marker_tail.
  destruct (strip_prefix_ci base64_reversed (rev m)) as [r|]; [|reflexivity].
  destruct (drop_spaces r) as [|c r']; [reflexivity|]. destruct (c =? 59); reflexivity.
Qed.

Lemma marker_tail_R r : bytes r -> marker_tail (R r) = option_map R (marker_tail r).
Proof.
  unfold marker_tail.
  induction r as [|c r IH]; intros Hb; [reflexivity|]. inversion Hb as [|? ? Hc Hr]; subst. unfold is_byte in Hc.
  rewrite R_cons. pose proof (se_spec c Hc) as Hs. destruct (should_encode S c) eqn:E.
  - rewrite (renc_enc c E). cbn [app drop_spaces].
    assert (Hm : c mod 16 < 16) by lia. pose proof (hex_rng _ Hm) as Hh.
    replace (hex_upper (c mod 16) =? 32) with false by lia.
    replace (hex_upper (c mod 16) =? 59) with false by lia.
    replace (c =? 32) with false by lia. replace (c =? 59) with false by lia. reflexivity.
  - rewrite (renc_plain c E). cbn [app drop_spaces]. destruct (c =? 32) eqn:E32; [exact (IH Hr)|].
    destruct (c =? 59); reflexivity.
Qed.

Definition lit_ok (l : N) : Prop := 32 <= l /\ l <= 126 /\ l <> 37.

Lemma to_lower_hi b : b < 32 \/ 126 < b -> to_lower b = b.
Proof. intros H. unfold to_lower, is_upper. replace ((65 <=? b) && (b <=? 90)) with false by lia. reflexivity. Qed.

(* matching literal characters against a reversed percent-encoded text, followed by any w that does not begin
   with one of the literals: what matches on the raw text matches on the encoded one; where the raw text does not
   match, the encoded one matches at most into the two hex digits of an escape, and no marker follows there.
   Needed of the encode set E: an encoded byte is none of the literals and not an upper-case letter;
   needed of the literals: none is '%' (the range part of lit_ok serves strip_ci_R) *)
Lemma strip_ci_renc (E : aset) w :
  (forall c, c < 256 -> should_encode E c = true -> to_lower c = c) ->
  forall lit, Forall lit_ok lit -> (forall c, c < 256 -> should_encode E c = true -> ~ In c lit) ->
  match w with c :: _ => ~ In (to_lower c) lit | [] => True end ->
  forall y, bytes y ->
  match strip_prefix_ci lit y with
  | Some r => strip_prefix_ci lit (flat_map (fun b => rev (enc1 E b)) y ++ w)
              = Some (flat_map (fun b => rev (enc1 E b)) r ++ w)
  | None => match strip_prefix_ci lit (flat_map (fun b => rev (enc1 E b)) y ++ w) with
            | Some r => marker_tail r = None
            | None => True
            end
  end.
Proof.
  intros Hlow. induction lit as [|l lit IH]; intros Hl Hne Hw y Hb; [destruct y; reflexivity|].
  inversion Hl as [|? ? Hl1 Hl2]; subst. destruct Hl1 as (L1 & L2 & L3).
  assert (Hne' : forall c, c < 256 -> should_encode E c = true -> ~ In c lit)
    by (intros c Hc He Hin; exact (Hne c Hc He (or_intror Hin))).
  assert (Hw' : match w with c :: _ => ~ In (to_lower c) lit | [] => True end)
    by (destruct w; [exact I|intros Hin; exact (Hw (or_intror Hin))]).
  destruct y as [|c y].
  { cbn [flat_map app]. destruct w as [|c w]; [exact I|]. cbn [strip_prefix_ci].
    destruct (to_lower c =? l) eqn:Ec; [apply N.eqb_eq in Ec; exfalso; apply Hw; left; symmetry; exact Ec|exact I]. }
  inversion Hb as [|? ? Hc Hr]; subst. unfold is_byte in Hc.
  cbn [flat_map]. rewrite <- app_assoc. destruct (should_encode E c) eqn:Ee.
  - (* an encoded byte: no match on the raw side; on the encoded side at most two hex digits match *)
    cbn [strip_prefix_ci]. rewrite (Hlow c Hc Ee).
    replace (c =? l) with false by (symmetry; apply N.eqb_neq; intros ->; exact (Hne l Hc Ee (or_introl eq_refl))).
    replace (rev (enc1 E c)) with [hex_upper (c mod 16); hex_upper (c / 16); 37] by (unfold enc1; rewrite Ee; reflexivity).
    cbn [app strip_prefix_ci].
    assert (Hm : c mod 16 < 16) by lia. pose proof (hex_rng _ Hm) as Hh.
    assert (Hd : c / 16 < 16) by lia. pose proof (hex_rng _ Hd) as Hh2.
    destruct (to_lower (hex_upper (c mod 16)) =? l); [|exact I].
    destruct lit as [|l2 lit].
    { cbn [strip_prefix_ci]. unfold marker_tail. cbn [drop_spaces].
      replace (hex_upper (c / 16) =? 32) with false by lia. replace (hex_upper (c / 16) =? 59) with false by lia.
      reflexivity. }
    cbn [strip_prefix_ci]. destruct (to_lower (hex_upper (c / 16)) =? l2); [|exact I].
    destruct lit as [|l3 lit].
    { cbn [strip_prefix_ci]. unfold marker_tail. cbn [drop_spaces]. reflexivity. }
    cbn [strip_prefix_ci]. inversion Hl2 as [|? ? _ Hl3]; subst. inversion Hl3 as [|? ? Hl4 _]; subst.
    destruct Hl4 as (_ & _ & M3). change (to_lower 37) with 37. replace (37 =? l3) with false by lia. exact I.
  - replace (rev (enc1 E c)) with [c] by (unfold enc1; rewrite Ee; reflexivity).
    cbn [app strip_prefix_ci]. destruct (to_lower c =? l); [|exact I].
    exact (IH Hl2 Hne' Hw' y Hr).
Qed.

Lemma strip_ci_R lit : Forall lit_ok lit -> forall y, bytes y ->
  match strip_prefix_ci lit y with
  | Some r => strip_prefix_ci lit (R y) = Some (R r)
  | None => match strip_prefix_ci lit (R y) with Some r => marker_tail r = None | None => True end
  end.
Proof.
  intros Hl y Hb.
  assert (He : forall c, c < 256 -> should_encode S c = true -> c < 32 \/ 126 < c)
    by (intros c Hc E; rewrite (se_spec c Hc) in E; lia).
  assert (Hne : forall c, c < 256 -> should_encode S c = true -> ~ In c lit).
  { intros c Hc E Hin. rewrite Forall_forall in Hl. specialize (Hl c Hin). specialize (He c Hc E). unfold lit_ok in Hl. lia. }
  pose proof (strip_ci_renc S [] (fun c Hc E => to_lower_hi c (He c Hc E)) lit Hl Hne I y Hb) as H.
  fold renc in H. fold (R y) in H. destruct (strip_prefix_ci lit y) as [r|]; rewrite ?app_nil_r in H; exact H.
Qed.

Lemma b64_lits_ok : Forall lit_ok base64_reversed.
Proof. unfold base64_reversed, lit_ok. repeat constructor; lia. Qed.

Lemma strip_ci_suffix lit : forall y r, strip_prefix_ci lit y = Some r -> exists p, y = p ++ r.
Proof.
  induction lit as [|l lit IH]; intros y r H.
  - destruct y; inversion H; exists []; reflexivity.
  - destruct y as [|c y]; [discriminate|]. cbn [strip_prefix_ci] in H. destruct (to_lower c =? l); [|discriminate].
    destruct (IH _ _ H) as [p ->]. exists (c :: p). reflexivity.
Qed.

Lemma marker_rev_R y : bytes y -> marker_rev (R y) = option_map R (marker_rev y).
Proof.
  intros Hb. unfold marker_rev. pose proof (strip_ci_R base64_reversed b64_lits_ok y Hb) as H.
  destruct (strip_prefix_ci base64_reversed y) as [r|] eqn:E.
  - rewrite H. apply marker_tail_R. destruct (strip_ci_suffix _ _ _ E) as [p ->]. apply bytes_app in Hb. tauto.
  - destruct (strip_prefix_ci base64_reversed (R y)) as [r|]; [exact H|reflexivity].
Qed.

Lemma ewbm_encode x : bytes x ->
  ends_with_base64_marker (encode S x) = option_map (fun r => encode S (rev r)) (marker_rev (rev x)).
Proof.
  intros Hb. rewrite ewbm_rev, rev_encode, marker_rev_R by (apply bytes_rev; exact Hb).
  destruct (marker_rev (rev x)) as [r|]; [|reflexivity]. cbn [option_map]. rewrite rev_R. reflexivity.
Qed.

(* the crate's scan of the reversed header (remove_base64_suffix without the final slice) *)
Definition crate_rev (z : list N) : option (list N) :=
  match require_exact T_DU_B64_EXACT z with
  | None => None
  | Some r1 =>
      match require_nocase T_DU_B64_NOCASE r1 with
      | None => None
      | Some r2 =>
          match skip_while_next r2 with
          | None => None
          | Some (b, bytes) => if b =? T_DU_B64_SEP then Some bytes else None
          end
      end
  end.

Lemma filter_next_filter z :
  match filter_next z with
  | None => filter nt z = []
  | Some (b, r) => filter nt z = b :: filter nt r
  end.
Proof.
  induction z as [|c z IH]; [reflexivity|]. cbn [filter_next filter]. rewrite is_skipped_spec.
  unfold C02_Enc.not_tnl. change (is_tnl c) with (tnl c). destruct (tnl c); cbn [negb]; [exact IH|reflexivity].
Qed.

Lemma require_exact_filter lits : Forall (fun l => l < 65) lits -> forall z,
  strip_prefix_ci lits (filter nt z) = option_map (filter nt) (require_exact lits z).
Proof.
  induction lits as [|l lits IH]; intros Hl z; [reflexivity|]. inversion Hl as [|? ? Hl1 Hl2]; subst.
  cbn [require_exact]. pose proof (filter_next_filter z) as Hf.
  destruct (filter_next z) as [[b r]|]; rewrite Hf; [|reflexivity]. cbn [strip_prefix_ci].
  assert (E : (to_lower b =? l) = (b =? l)).
  { unfold to_lower, is_upper. destruct ((65 <=? b) && (b <=? 90)) eqn:Eu; lia. }
  rewrite E. destruct (b =? l); [exact (IH Hl2 r)|reflexivity].
Qed.

Lemma require_nocase_filter lits : Forall (fun l => to_lower l = l) lits -> forall z,
  strip_prefix_ci lits (filter nt z) = option_map (filter nt) (require_nocase lits z).
Proof.
  induction lits as [|l lits IH]; intros Hl z; [reflexivity|]. inversion Hl as [|? ? Hl1 Hl2]; subst.
  cbn [require_nocase]. pose proof (filter_next_filter z) as Hf.
  destruct (filter_next z) as [[b r]|]; rewrite Hf; [|reflexivity]. cbn [strip_prefix_ci].
  unfold byte_eq_ignore_ascii_case. rewrite Hl1. destruct (to_lower b =? l); [exact (IH Hl2 r)|reflexivity].
Qed.

Lemma strip_ci_app a : forall b y,
  strip_prefix_ci (a ++ b) y = match strip_prefix_ci a y with Some r => strip_prefix_ci b r | None => None end.
Proof.
  induction a as [|l a IH]; intros b y.
  - cbn [app strip_prefix_ci]. destruct y; reflexivity.
  - cbn [app strip_prefix_ci]. destruct y as [|c y]; [reflexivity|]. destruct (to_lower c =? l); [apply IH|reflexivity].
Qed.

Lemma skip_while_next_filter r :
  match skip_while_next r with
  | None => drop_spaces (filter nt r) = []
  | Some (b, bs) => drop_spaces (filter nt r) = b :: filter nt bs /\ b <> 32
  end.
Proof.
  induction r as [|c r IH]; [reflexivity|]. cbn [skip_while_next filter]. rewrite is_skipped_spec.
  unfold C02_Enc.not_tnl. change (is_tnl c) with (tnl c). destruct (tnl c); cbn [negb]; [exact IH|].
  cbn [drop_spaces]. change T_DU_B64_SKIP with 32. destruct (c =? 32) eqn:E; [exact IH|].
  split; [reflexivity|lia].
Qed.

Lemma crate_rev_marker z : marker_rev (filter nt z) = option_map (filter nt) (crate_rev z).
Proof.
  unfold marker_rev, crate_rev. change base64_reversed with (T_DU_B64_EXACT ++ T_DU_B64_NOCASE).
  rewrite strip_ci_app, require_exact_filter by (unfold T_DU_B64_EXACT; repeat constructor).
  destruct (require_exact T_DU_B64_EXACT z) as [r1|]; [|reflexivity]. cbn [option_map].
  rewrite require_nocase_filter by (unfold T_DU_B64_NOCASE; repeat constructor).
  destruct (require_nocase T_DU_B64_NOCASE r1) as [r2|]; [|reflexivity]. cbn [option_map].
  unfold marker_tail. pose proof (skip_while_next_filter r2) as Hs.
  destruct (skip_while_next r2) as [[b bs]|].
  - destruct Hs as [Hs _]. rewrite Hs. change T_DU_B64_SEP with 59. destruct (b =? 59); reflexivity.
  - rewrite Hs. reflexivity.
Qed.

Lemma crate_rev_suffix z bs : crate_rev z = Some bs -> exists p, z = p ++ bs.
Proof.
  unfold crate_rev.
  destruct (require_exact T_DU_B64_EXACT z) as [r1|] eqn:E1; [|discriminate].
  destruct (require_nocase T_DU_B64_NOCASE r1) as [r2|] eqn:E2; [|discriminate].
  destruct (skip_while_next r2) as [[b bytes]|] eqn:E3; [|discriminate].
  destruct (b =? T_DU_B64_SEP); [|discriminate]. intros H. inversion H; subst. clear H.
  destruct (require_exact_split _ _ _ E1) as [p1 H1]. destruct (require_nocase_split _ _ _ E2) as [p2 H2].
  destruct (skip_while_next_split _ _ _ E3) as [p3 H3].
  exists (p1 ++ p2 ++ p3 ++ [b]). rewrite H1, H2, H3, <- !app_assoc. reflexivity.
Qed.

(* remove_base64_suffix in closed form *)
Lemma remove_base64_suffix_eq s :
  remove_base64_suffix s = Ok (option_map (@rev N) (crate_rev (rev s))).
Proof.
  destruct (remove_base64_suffix_total s) as [w Hw]. rewrite Hw. f_equal.
  destruct (crate_rev (rev s)) as [bs|] eqn:Ec.
  - (* the marker is there: the slice taken is the text in front of it *)
    destruct (crate_rev_suffix _ _ Ec) as [p Hp].
    assert (Es : s = rev bs ++ rev p) by (rewrite <- rev_app_distr, <- Hp, rev_involutive; reflexivity).
    revert Ec Hw. unfold crate_rev, remove_base64_suffix.
    destruct (require_exact T_DU_B64_EXACT (rev s)) as [r1|]; [|discriminate].
    destruct (require_nocase T_DU_B64_NOCASE r1) as [r2|]; [|discriminate].
    destruct (skip_while_next r2) as [[b bytes]|]; [|discriminate].
    destruct (b =? T_DU_B64_SEP); cbn [negb]; [|discriminate]. intros [= ->].
    unfold slice_to. destruct (is_char_boundary s (length bs)); cbn [bind]; [|discriminate]. intros [= <-].
    cbn [option_map]. f_equal.
    rewrite Es at 1. rewrite <- (rev_length bs), firstn_app, Nat.sub_diag, firstn_all. cbn [firstn]. apply app_nil_r.
  - revert Ec Hw. unfold crate_rev, remove_base64_suffix.
    destruct (require_exact T_DU_B64_EXACT (rev s)) as [r1|]; [|intros _ [= <-]; reflexivity].
    destruct (require_nocase T_DU_B64_NOCASE r1) as [r2|]; [|intros _ [= <-]; reflexivity].
    destruct (skip_while_next r2) as [[b bytes]|]; [|intros _ [= <-]; reflexivity].
    destruct (b =? T_DU_B64_SEP); cbn [negb]; [discriminate|intros _ [= <-]; reflexivity].
Qed.

(* the percent-encoding loop of parse_header outside the query *)
Lemma header_loop_encode t : bytes t -> ~ In 63 t -> header_loop false t = encode S (filter nt t).
Proof.
  induction t as [|b t IH]; intros Hb Hq; [reflexivity|]. inversion Hb as [|? ? Hb1 Hb2]; subst. unfold is_byte in Hb1.
  assert (Hq' : ~ In 63 t) by (intros Hin; apply Hq; right; exact Hin).
  assert (Hb63 : (b =? 63) = false) by (destruct (b =? 63) eqn:E; [apply N.eqb_eq in E; exfalso; apply Hq; left; exact E|reflexivity]).
  cbn [header_loop filter]. rewrite is_skipped_spec. unfold C02_Enc.not_tnl. change (is_tnl b) with (tnl b).
  destruct (tnl b); cbn [negb]; [exact (IH Hb2 Hq')|].
  rewrite encode_cons. unfold enc1. rewrite hdr_enc_is_controls by exact Hb1.
  destruct (should_encode S b).
  - rewrite percent_encode_spec by exact Hb1. rewrite (IH Hb2 Hq'). reflexivity.
  - rewrite andb_false_r. change T_DU_HDR_QMARK with 63. rewrite Hb63. rewrite (IH Hb2 Hq'). reflexivity.
Qed.

(* the "text/plain" prefix *)
Lemma step12_app a w : bytes a ->
  fetch_step12 (encode S a ++ w) = (if starts_with_byte 59 (a ++ w) then text_plain else []) ++ encode S a ++ w.
Proof.
  intros Hb. destruct a as [|b a].
  { cbn [encode flat_map app]. destruct w as [|c w]; [reflexivity|]. cbn [fetch_step12 starts_with_byte].
    destruct (c =? 59); reflexivity. }
  inversion Hb as [|? ? Hb1 Hb2]; subst. unfold is_byte in Hb1.
  cbn [app starts_with_byte]. rewrite encode_cons. unfold enc1. pose proof (se_spec b Hb1) as Hs.
  destruct (should_encode S b).
  - unfold enc_byte_spec. cbn [app fetch_step12]. change (37 =? 59) with false. replace (b =? 59) with false by lia.
    reflexivity.
  - cbn [app fetch_step12]. destruct (b =? 59); reflexivity.
Qed.

Lemma starts_filter t : match t with b :: _ => tnl b = false | [] => True end ->
  starts_with_byte 59 t = starts_with_byte 59 (filter nt t).
Proof.
  destruct t as [|b t]; [reflexivity|]. intros Hh. cbn [filter]. unfold C02_Enc.not_tnl. change (is_tnl b) with (tnl b).
  rewrite Hh. reflexivity.
Qed.

Lemma bytes_filter (f : N -> bool) l : bytes l -> bytes (filter f l).
Proof. unfold bytes. rewrite !Forall_forall. intros H x Hx. apply filter_In in Hx. apply H. tauto. Qed.

Lemma step12_encode t : bytes t -> match t with b :: _ => tnl b = false | [] => True end ->
  fetch_step12 (encode S (filter nt t))
  = (if starts_with_byte T_DU_HDR_PREFIX_IF t then T_DU_HDR_PREFIX else []) ++ encode S (filter nt t).
Proof.
  intros Hb Hh. pose proof (step12_app (filter nt t) [] (bytes_filter nt t Hb)) as H. rewrite !app_nil_r in H.
  rewrite H, <- starts_filter by exact Hh. reflexivity.
Qed.

(* the first byte of a trimmed header is not a tab / newline; nor is that of a prefix of it *)
Lemma drop_while_head f l : match drop_while f l with b :: _ => f b = false | [] => True end.
Proof. induction l as [|c r IH]; [exact I|]. cbn [drop_while]. destruct (f c) eqn:E; [exact IH|exact E]. Qed.

Lemma prefix_head (t q l : list N) (P : N -> Prop) : l = t ++ q ->
  match l with b :: _ => P b | [] => True end -> match t with b :: _ => P b | [] => True end.
Proof. intros -> H. destruct t; [exact I|exact H]. Qed.

Definition trimmed_header (h : list N) : list N :=
  drop_while_end is_header_trim (drop_while is_header_trim h).

Lemma trimmed_head h : match trimmed_header h with b :: _ => tnl b = false | [] => True end.
Proof.
  unfold trimmed_header. destruct (drop_while_end_prefix is_header_trim (drop_while is_header_trim h)) as [post Hp].
  apply (prefix_head _ post _ (fun b => tnl b = false) Hp).
  pose proof (drop_while_head is_header_trim h) as Hh. destruct (drop_while is_header_trim h) as [|b r]; [exact I|].
  rewrite is_header_trim_spec in Hh. apply orb_false_iff in Hh. tauto.
Qed.

Lemma notin_prefix (c : N) t q : ~ In c (t ++ q) -> ~ In c t.
Proof. intros H Hin. apply H. apply in_or_app. left. exact Hin. Qed.

Lemma trimmed_sub h : exists p q, h = p ++ trimmed_header h ++ q.
Proof.
  unfold trimmed_header. destruct (drop_while_suffix is_header_trim h) as [p Hp].
  destruct (drop_while_end_prefix is_header_trim (drop_while is_header_trim h)) as [q Hq].
  exists p, q. rewrite <- Hq. exact Hp.
Qed.

(* header_of h: what parse_header hands to Mime::from_str, and the base64 flag (parse_header_eq) *)
Definition header_of (h : list N) : list N * bool :=
  let trimmed := trimmed_header h in
  match crate_rev (rev trimmed) with
  | Some bs => (header_string (rev bs), true)
  | None => (header_string trimmed, false)
  end.

Lemma parse_header_eq h :
  parse_header h = bind (Mime.from_str (fst (header_of h)))
                        (fun parsed => Ok (match parsed with Some m => m | None => fallback_mime end, snd (header_of h))).
Proof.
  unfold parse_header, header_of. fold (trimmed_header h). rewrite remove_base64_suffix_eq. cbn [bind].
  destruct (crate_rev (rev (trimmed_header h))); reflexivity.
Qed.

(* The header theorem, byte level.  Both sides are brought to the raw header without tab / newlines:
   on the Fetch side strip_ws_encode moves the whitespace stripping under the encoding, filter_trim_ht
   makes the stripped text the filtered trimmed_header, ewbm_encode reads the marker on the reversed raw
   text; crate_rev_marker identifies that with the crate's scan.  In either case of the scan
   header_loop_encode gives the crate's loop as the encoding and step12_encode the "text/plain" prefix. *)
Theorem header_bytes h : bytes h -> ~ In 63 h -> header_of h = fetch_header (encode S (filter nt h)).
Proof.
  intros Hb Hq. unfold header_of, fetch_header.
  rewrite strip_ws_encode by exact (bytes_filter nt h Hb). rewrite <- filter_trim_ht. fold (trimmed_header h).
  destruct (trimmed_sub h) as (p & q & Hsub).
  assert (Hbt : bytes (trimmed_header h)).
  { rewrite Hsub in Hb. apply bytes_app in Hb. destruct Hb as [_ Hb]. apply bytes_app in Hb. tauto. }
  assert (Hqt : ~ In 63 (trimmed_header h)).
  { rewrite Hsub in Hq. intros Hin. apply Hq. apply in_or_app. right. apply in_or_app. left. exact Hin. }
  rewrite ewbm_encode by exact (bytes_filter nt _ Hbt). rewrite <- filter_rev', crate_rev_marker.
  destruct (crate_rev (rev (trimmed_header h))) as [bs|] eqn:Ec; cbn [option_map].
  - destruct (crate_rev_suffix _ _ Ec) as [pp Hpp].
    assert (Et : trimmed_header h = rev bs ++ rev pp) by (rewrite <- rev_app_distr, <- Hpp, rev_involutive; reflexivity).
    assert (Hbb : bytes (rev bs)) by (rewrite Et in Hbt; apply bytes_app in Hbt; tauto).
    assert (Hqb : ~ In 63 (rev bs)) by (rewrite Et in Hqt; exact (notin_prefix _ _ _ Hqt)).
    rewrite <- filter_rev'. f_equal. unfold header_string.
    rewrite header_loop_encode by assumption. symmetry. apply step12_encode; [exact Hbb|].
    apply (prefix_head _ (rev pp) _ (fun b => tnl b = false) Et). exact (trimmed_head h).
  - f_equal. unfold header_string. rewrite header_loop_encode by assumption. symmetry.
    apply step12_encode; [exact Hbt|exact (trimmed_head h)].
Qed.
