(* Proofs/Idna_WalkInv.v - what the output walks of Uts46::process need from process_inner, in BOTH error modes and
   for EVERY adapter (no adapter premise; the ASCII part needs `bytes d`):
     - the fail-fast run either takes the early return - and then the marking run shows why: had_errors, or an AalOther
       entry of already_punycode (the all-ASCII xn-- label that the fail-fast run rejects at once and the marking run
       sends through the mapping path: the one place where the simulation of Proofs/Idna_Sim.v needs the rediscovery
       premise) - or returns exactly what the marking run returns, without errors (process_inner_cmp; inner_wsim
       forgets the reason, inner_osim of Proofs/Idna_WalkPass.v keeps it);
     - in the marking run the passed-through prefix of the input is ASCII, and every MixedCaseAscii /
       MixedCasePunycode entry of already_punycode carries an ASCII label. *)
From RU Require Import Base.Prelude Base.Utf8 Base.U32_c13 Gen.Tables Model.Punycode Model.Uts46
  Proofs.Idna_Sim Proofs.Idna_Api Proofs.Idna_Known Proofs.Idna_Hyp Proofs.Idna_Redisc
  Proofs.Idna_C10_Deny Proofs.Idna_C10_Prefix Proofs.Idna_C10_Inner
  Proofs.Idna_Mark Proofs.Idna_SimRun Proofs.Idna_MarkWalk.

(* the fail-fast run against the marking run, without the rediscovery premise *)
Section ORel.
Context {X : Type} (he_of : X -> bool) (ap_of : X -> list aal).
(* WO rt rf, for one step in the two modes: the fail-fast result rt left early and the marking result rf shows why
   (an error, or an AalOther entry), or they agree *)
Definition WO (rt rf : step X) : Prop :=
  (rt = SExit /\ match rf with SOk x => he_of x = true \/ In AalOther (ap_of x) | _ => True end) \/
  match rf with
  | SOk x => he_of x = false /\ rt = SOk x
  | SExit => False
  | SPanic s => rt = SPanic s
  end.
Lemma WO_of_R rt rf : R he_of rt rf -> WO rt rf.
Proof.
  unfold WO. destruct rf as [x| |s]; cbn [R]; intros H.
  - destruct (he_of x) eqn:E; [left; split; [exact H|left; reflexivity]|right; split; [reflexivity|exact H]].
  - contradiction.
  - destruct H as [H|H]; [left; split; [exact H|exact I]|right; exact H].
Qed.
End ORel.

Definition apT (x : list N * bool * list aal) : list aal := snd x.

Section WSim.
Variable A : adapter.
Variable cfg : bool.

Lemma sublabels_ap ff hy dd rest : forall s db cur he ap fcm ncj db' he' ap',
  sublabels A cfg ff hy dd s rest db cur he ap fcm ncj = SOk (db', he', ap') -> exists k, ap' = ap ++ repeat AalOther k.
Proof.
  induction rest as [|s2 rest IH]; intros s db cur he ap fcm ncj db' he' ap' H; cbn [sublabels] in H.
  - apply sbind_ok in H. destruct H as ([s1 h1] & _ & H). apply sbind_ok in H. destruct H as ([lab h2] & _ & H).
    inversion H. exists 0%nat. cbn [repeat]. rewrite app_nil_r. reflexivity.
  - apply sbind_ok in H. destruct H as ([s1 h1] & _ & H). apply sbind_ok in H. destruct H as ([lab h2] & _ & H).
    destruct (IH _ _ _ _ _ _ _ _ _ _ H) as (k & ->). exists (Datatypes.S k). cbn [repeat]. rewrite <- app_assoc. reflexivity.
Qed.

Lemma complexF_other hy deny db he ap ascii non_ascii db' he' ap' :
  complexF A cfg false hy deny db he ap ascii non_ascii = SOk (db', he', ap') -> In AalOther ap'.
Proof.
  unfold complexF. intros H. apply sbind_ok in H. destruct H as ([c1 h1] & _ & H).
  destruct (split1 DOT (map (apply_lower deny) (map_normalize A (utf8_lossy non_ascii)))) as [s rest].
  apply sublabels_ap in H. destruct H as (k & ->). apply in_or_app. left. apply in_or_app. right. left. reflexivity.
Qed.

Lemma label_nonempty_WO hy deny label db ap :
  WO heT apT (label_nonempty A cfg true hy deny label db false ap) (label_nonempty A cfg false hy deny label db false ap).
Proof.
  rewrite !label_nonempty_eq. destruct (split_ascii_fast_path_prefix label) as [ascii non_ascii] eqn:Es.
  destruct non_ascii as [|na nr]; [|apply WO_of_R, complexF_R].
  destruct (has_punycode_prefix ascii) eqn:Eh; [|apply WO_of_R, complexT_R].
  destruct (negb match last_opt ascii with Some l => l =? HYPHEN | None => false end
            && (len ascii - 4 <=? PUNYCODE_DECODE_MAX_INPUT_LENGTH)) eqn:Ec.
  - destruct (decode_with cfg U8Internal (skipn 4 ascii)) as [dec| |s]; [|left; split; [reflexivity|left; reflexivity]|right; reflexivity].
    apply WO_of_R. apply R_bind with (hx := he2); [apply after_punycode_decode_R| |].
    + intros [l h] E. cbn [he2 snd] in E. subst h. apply R_bind with (hx := he2); [apply check_label_R| |].
      * intros [l2 h2] E. cbn [he2 snd] in E. subst h2. apply R_ok. reflexivity.
      * intros [l2 h2] E. cbn [he2 snd] in E. subst h2. reflexivity.
    + intros [l h] E. cbn [he2 snd] in E. subst h. apply M_bind with (hx := he2); [apply check_label_M|].
      intros [l2 h2] E. cbn [he2 snd] in E. subst h2. reflexivity.
  - left. split; [reflexivity|].
    destruct (complexF A cfg false hy deny db false ap ascii []) as [[[db' he'] ap']| |s] eqn:E; [|exact I|exact I].
    right. cbn [apT snd]. exact (complexF_other _ _ _ _ _ _ _ _ _ _ E).
Qed.

(* already_punycode only grows *)
Lemma label_step_ap hy deny label s s' : nodot label ->
  label_step A cfg false hy deny label s = SOk s' -> exists es, i_ap s' = i_ap s ++ es.
Proof.
  intros Hn. unfold label_step. destruct (i_inpre s && is_passthrough_ascii_label label).
  - intros H. inversion H. exists []. cbn [i_ap]. rewrite app_nil_r. reflexivity.
  - destruct label as [|b r].
    + intros H. inversion H. cbn [i_ap]. eauto.
    + intros H. apply sbind_ok in H. destruct H as ([[db1 he1] ap1] & H1 & H). inversion H. cbn [i_ap].
      pose proof (label_nonempty_LN A cfg hy deny (b :: r) (if i_seen s && negb (i_inpre s) then i_db s ++ [DOT] else i_db s)
                    (i_he s) (i_ap s) Hn) as HL.
      rewrite H1 in HL. destruct HL as (labs & es & _ & _ & _ & Hap & _). exists es. exact Hap.
Qed.
Lemma labels_loop_ap hy deny labels : Forall nodot labels -> forall s s',
  labels_loop A cfg false hy deny labels s = SOk s' -> exists es, i_ap s' = i_ap s ++ es.
Proof.
  induction labels as [|l r IH]; intros Hn s s' H; cbn [labels_loop] in H.
  - inversion H. exists []. rewrite app_nil_r. reflexivity.
  - apply sbind_ok in H. destruct H as (s1 & H1 & H).
    destruct (label_step_ap hy deny l s s1 (Forall_inv Hn) H1) as (e1 & E1).
    destruct (IH (Forall_inv_tail Hn) s1 s' H) as (e2 & E2). exists (e1 ++ e2). rewrite E2, E1, app_assoc. reflexivity.
Qed.

Lemma label_step_WO hy deny label s : i_he s = false ->
  WO i_he i_ap (label_step A cfg true hy deny label s) (label_step A cfg false hy deny label s).
Proof.
  intros Hs. unfold label_step.
  destruct (i_inpre s && is_passthrough_ascii_label label); [right; split; [exact Hs|reflexivity]|].
  destruct label as [|b r]; [right; split; [exact Hs|reflexivity]|].
  rewrite Hs. pose proof (label_nonempty_WO hy deny (b :: r) (if i_seen s && negb (i_inpre s) then i_db s ++ [DOT] else i_db s) (i_ap s)) as HW.
  destruct HW as [[-> HW]|HW].
  - left. split; [reflexivity|]. destruct (label_nonempty A cfg false hy deny (b :: r) _ false (i_ap s)) as [[[db1 he1] ap1]| |p]; cbn [sbind]; [|exact I|exact I].
    cbn [i_he i_ap]. exact HW.
  - destruct (label_nonempty A cfg false hy deny (b :: r) _ false (i_ap s)) as [[[db1 he1] ap1]| |p]; [|contradiction|].
    + destruct HW as [E ->]. cbn [heT snd fst] in E. subst he1. right. cbn [sbind]. split; reflexivity.
    + rewrite HW. right. reflexivity.
Qed.

Lemma labels_loop_WO hy deny labels : Forall nodot labels -> forall s, i_he s = false ->
  WO i_he i_ap (labels_loop A cfg true hy deny labels s) (labels_loop A cfg false hy deny labels s).
Proof.
  induction labels as [|l r IH]; intros Hn s Hs; cbn [labels_loop]; [right; split; [exact Hs|reflexivity]|].
  destruct (label_step_WO hy deny l s Hs) as [[-> HW]|HW].
  - left. split; [reflexivity|].
    destruct (label_step A cfg false hy deny l s) as [s1| |p]; cbn [sbind]; [|exact I|exact I].
    destruct (labels_loop A cfg false hy deny r s1) as [s'| |p] eqn:El; [|exact I|exact I].
    destruct HW as [HW|HW].
    + left. pose proof (labels_loop_M A cfg hy deny r s1 HW) as HM. rewrite El in HM. exact HM.
    + right. destruct (labels_loop_ap hy deny r (Forall_inv_tail Hn) s1 s' El) as (es & ->). apply in_or_app. left. exact HW.
  - destruct (label_step A cfg false hy deny l s) as [s1| |p]; [|contradiction|].
    + destruct HW as [E ->]. cbn [sbind]. exact (IH (Forall_inv_tail Hn) s1 E).
    + rewrite HW. right. reflexivity.
Qed.

(* the fail-fast run returns early - and then the marking run shows an error or an AalOther entry - or agrees with an
   error-free marking run.  The two results are named rt, rf through equations so that the conclusion can match on rf;
   callers pass eq_refl twice.  process_inner_cmp: the same for process_inner. *)
Lemma process_innermost_cmp hy deny d tail : forall rt rf,
  rt = process_innermost A cfg true hy deny d tail -> rf = process_innermost A cfg false hy deny d tail ->
  (rt = I_EXIT /\ match rf with IRes _ _ he _ ap => he = true \/ In AalOther ap | IPanic _ => True end) \/
  match rf with
  | IRes ptu b he db ap => he = false /\ rt = rf
  | IPanic s => rt = rf
  end.
Proof.
  intros rt rf -> ->. unfold process_innermost.
  set (s0 := {| i_ptu := len d - len tail; i_seen := false; i_inpre := true; i_db := []; i_he := false; i_ap := [] |}).
  pose proof (labels_loop_WO hy deny (split_on DOT tail) (split_on_nodot tail) s0 eq_refl) as HW.
  destruct HW as [[-> HW]|HW].
  - left. split; [reflexivity|].
    destruct (labels_loop A cfg false hy deny (split_on DOT tail) s0) as [s| |p]; [|left; reflexivity|exact I].
    destruct (is_bidi A cfg (i_db s)) as [[|]| |p]; try exact I; [|exact HW].
    pose proof (bidi_labels_BLP A (split_on DOT (i_db s)) (i_he s)) as HB.
    destruct (bidi_labels A false (split_on DOT (i_db s)) (i_he s)) as [[ls he2]| |p] eqn:Eb; [|left; reflexivity|exact I].
    destruct HW as [HW|HW]; [|right; exact HW]. left.
    rewrite HW in Eb. pose proof (bidi_labels_M A (split_on DOT (i_db s))) as HM. rewrite Eb in HM. exact HM.
  - destruct (labels_loop A cfg false hy deny (split_on DOT tail) s0) as [s| |p]; [|contradiction|rewrite HW; right; reflexivity].
    destruct HW as [Eh ->]. rewrite Eh.
    destruct (is_bidi A cfg (i_db s)) as [[|]| |p]; try (right; reflexivity); [|right; split; reflexivity].
    pose proof (bidi_labels_R A (split_on DOT (i_db s))) as HB.
    destruct (bidi_labels A false (split_on DOT (i_db s)) false) as [[ls h]| |p]; cbn [R heL snd] in HB.
    + destruct h; rewrite HB; [left; split; [reflexivity|left; reflexivity]|right; split; reflexivity].
    + contradiction.
    + destruct HB as [-> | ->]; [left; split; [reflexivity|exact I]|right; reflexivity].
Qed.

Lemma process_inner_cmp hy deny d : forall rt rf,
  rt = process_inner A cfg true hy deny d -> rf = process_inner A cfg false hy deny d ->
  (rt = I_EXIT /\ match rf with IRes _ _ he _ ap => he = true \/ In AalOther ap | IPanic _ => True end) \/
  match rf with
  | IRes ptu b he db ap => he = false /\ rt = rf
  | IPanic s => rt = rf
  end.
Proof.
  intros rt rf -> ->. unfold process_inner. destruct (fast_tier d d) as [tail|].
  - exact (process_innermost_cmp hy deny d tail _ _ eq_refl eq_refl).
  - right. split; reflexivity.
Qed.

Definition inner_wsim (rt rf : inner_res) : Prop :=
  rt = I_EXIT \/ match rf with
                 | IRes ptu b he db ap => he = false /\ rt = rf
                 | IPanic s => rt = rf
                 end.

Theorem process_inner_wsim hy deny d :
  inner_wsim (process_inner A cfg true hy deny d) (process_inner A cfg false hy deny d).
Proof. destruct (process_inner_cmp hy deny d _ _ eq_refl eq_refl) as [[H _]|H]; [left; exact H|right; exact H]. Qed.
End WSim.

(* the ASCII part of the invariant (marking run): an entry that carries a label carries an ASCII one *)
Definition mixed_ascii (e : aal) : Prop :=
  match e with MixedCaseAscii m | MixedCasePunycode m => ascii m | AalOther => True end.

Lemma repeat_other_ascii k : Forall mixed_ascii (repeat AalOther k).
Proof. induction k as [|k IH]; cbn [repeat]; constructor; [exact I|exact IH]. Qed.

(* passthrough_clean (Idna_C10_Deny.v) at the deny list DENY_STD3, keeping only the ASCII half of `clean` *)
Lemma passthrough_ascii label : bytes label -> is_passthrough_ascii_label label = true -> ascii label.
Proof.
  intros Hb H. pose proof (passthrough_clean DENY_STD3 label (proj2 std3_facts) Hb H) as Hc.
  eapply Forall_impl; [|exact Hc]. intros a [Ha _]. exact Ha.
Qed.

Section AsciiInv.
Variable A : adapter.
Variable cfg : bool.

Lemma complexF_ap ff hy deny db he ap ascii non_ascii db' he' ap' :
  complexF A cfg ff hy deny db he ap ascii non_ascii = SOk (db', he', ap') -> Forall mixed_ascii ap -> Forall mixed_ascii ap'.
Proof.
  unfold complexF. intros H Hap. apply sbind_ok in H. destruct H as ([c1 h1] & _ & H).
  destruct (split1 DOT (map (apply_lower deny) (map_normalize A (utf8_lossy non_ascii)))) as [s rest].
  apply (sublabels_ap A cfg) in H. destruct H as (k & ->).
  apply Forall_app. split; [apply Forall_app; split; [exact Hap|constructor; [exact I|constructor]]|apply repeat_other_ascii].
Qed.

Lemma label_nonempty_ap ff hy deny label db he ap db' he' ap' :
  label_nonempty A cfg ff hy deny label db he ap = SOk (db', he', ap') -> Forall mixed_ascii ap -> Forall mixed_ascii ap'.
Proof.
  rewrite label_nonempty_eq. destruct (split_ascii_fast_path_prefix label) as [asc non_ascii] eqn:Es. intros H Hap.
  destruct non_ascii as [|na nr]; [|exact (complexF_ap _ _ _ _ _ _ _ _ _ _ _ H Hap)].
  pose proof (split_ascii_app _ _ _ Es) as Hlab. rewrite app_nil_r in Hlab. subst asc.
  pose proof (split_ascii_all label label Es) as Ha.
  assert (Hsn : forall e, mixed_ascii e -> Forall mixed_ascii (ap ++ [e])).
  { intros e He. apply Forall_app. split; [exact Hap|constructor; [exact He|constructor]]. }
  destruct (has_punycode_prefix label).
  - destruct (negb match last_opt label with Some l => l =? HYPHEN | None => false end
              && (len label - 4 <=? PUNYCODE_DECODE_MAX_INPUT_LENGTH)).
    + destruct (decode_with cfg U8Internal (skipn 4 label)) as [decoded| |s]; [| |discriminate].
      * apply sbind_ok in H. destruct H as ([c1 h1] & _ & H). apply sbind_ok in H. destruct H as ([c2 h2] & _ & H).
        inversion H. apply Hsn. exact Ha.
      * destruct ff; [discriminate|]. inversion H. apply Hsn. exact Ha.
    + destruct ff; [discriminate|]. exact (complexF_ap _ _ _ _ _ _ _ _ _ _ _ H Hap).
  - unfold complexT in H. apply sbind_ok in H. destruct H as ([c1 h1] & _ & H).
    apply sbind_ok in H. destruct H as ([c2 h2] & _ & H). destruct h2; inversion H; apply Hsn; [exact I|exact Ha].
Qed.

Variable d : list N.
Hypothesis Hd : bytes d.

Definition AInv (s : ist) : Prop :=
  ascii (firstn (N.to_nat (i_ptu s)) d) /\ Forall mixed_ascii (i_ap s).

Lemma label_step_AInv hy deny label s s' todo : SInv d s (label :: todo) -> AInv s ->
  label_step A cfg false hy deny label s = SOk s' -> AInv s'.
Proof.
  intros (P & HP & HS) [HA1 HA2] H. unfold label_step in H.
  destruct (i_inpre s && is_passthrough_ascii_label label) eqn:Ec.
  - apply andb_true_iff in Ec. destruct Ec as [Epre Epass]. rewrite Epre in HS. destruct HS as (_ & _ & _ & Hdd).
    inversion H. clear H. subst s'. split; cbn [i_ptu i_ap]; [|exact HA2].
    rewrite tailtext_cons in Hdd.
    assert (Hbl : bytes label).
    { unfold bytes in *. rewrite Hdd in Hd. apply Forall_app in Hd. destruct Hd as [_ H2].
      apply Forall_app in H2. destruct H2 as [_ H2]. apply Forall_app in H2. exact (proj1 H2). }
    assert (HP0 : firstn (N.to_nat (i_ptu s)) d = P) by (rewrite <- HP; rewrite Hdd at 1; apply firstn_len_app).
    rewrite HP0 in HA1.
    set (Q := P ++ (if i_seen s then [DOT] else []) ++ label).
    assert (HQ : len Q = i_ptu s + (if i_seen s then 1 else 0) + len label).
    { unfold Q. rewrite !len_app, HP. destruct (i_seen s); unfold len; cbn [length]; lia. }
    assert (HdQ : d = Q ++ tailtext true todo) by (unfold Q; rewrite <- !app_assoc; exact Hdd).
    rewrite <- HQ. rewrite HdQ at 1. rewrite firstn_len_app. unfold Q.
    apply ascii_app. split; [exact HA1|]. apply ascii_app. split; [|exact (passthrough_ascii label Hbl Epass)].
    destruct (i_seen s); [constructor; [unfold is_ascii, DOT; lia|constructor]|constructor].
  - assert (HA1' : ascii (firstn (N.to_nat (if i_seen s && i_inpre s then i_ptu s + 1 else i_ptu s)) d)).
    { destruct (i_seen s && i_inpre s) eqn:E; [|exact HA1]. apply andb_true_iff in E. destruct E as [Es Ep].
      rewrite Ep in HS. destruct HS as (_ & _ & _ & Hdd). rewrite Es in Hdd. cbn [tailtext] in Hdd.
      assert (HP0 : firstn (N.to_nat (i_ptu s)) d = P) by (rewrite <- HP; rewrite Hdd at 1; apply firstn_len_app).
      rewrite HP0 in HA1.
      assert (Hd2 : d = (P ++ [DOT]) ++ join_dots (label :: todo)) by (rewrite <- app_assoc; exact Hdd).
      replace (i_ptu s + 1) with (len (P ++ [DOT])) by (rewrite len_app, HP; reflexivity).
      rewrite Hd2 at 1. rewrite firstn_len_app. apply ascii_app. split; [exact HA1|].
      constructor; [unfold is_ascii, DOT; lia|constructor]. }
    destruct label as [|b r].
    + inversion H. clear H. subst s'. split; cbn [i_ptu i_ap]; [exact HA1'|].
      apply Forall_app. split; [exact HA2|constructor; [constructor|constructor]].
    + apply sbind_ok in H. destruct H as ([[db1 he1] ap1] & H1 & H). inversion H. clear H. subst s'.
      split; cbn [i_ptu i_ap]; [exact HA1'|]. exact (label_nonempty_ap _ _ _ _ _ _ _ _ _ _ H1 HA2).
Qed.

Lemma labels_loop_AInv hy deny labels : Forall nodot labels -> forall s s', SInv d s labels -> AInv s ->
  labels_loop A cfg false hy deny labels s = SOk s' -> AInv s'.
Proof.
  induction labels as [|l r IH]; intros Hn s s' HS HA H; cbn [labels_loop] in H.
  - inversion H. subst. exact HA.
  - apply sbind_ok in H. destruct H as (s1 & H1 & H).
    pose proof (label_step_SInv A cfg d hy deny l s r (Forall_inv Hn) HS) as HS1. rewrite H1 in HS1. cbn [SPost] in HS1.
    exact (IH (Forall_inv_tail Hn) s1 s' HS1 (label_step_AInv hy deny l s s1 r HS HA H1) H).
Qed.

Lemma process_innermost_ascii hy deny pre tail ptu bd he db ap : d = pre ++ tail -> ascii pre ->
  process_innermost A cfg false hy deny d tail = IRes ptu bd he db ap ->
  ascii (firstn (N.to_nat ptu) d) /\ Forall mixed_ascii ap.
Proof.
  intros Hdd Hpre. unfold process_innermost.
  set (s0 := {| i_ptu := len d - len tail; i_seen := false; i_inpre := true; i_db := []; i_he := false; i_ap := [] |}).
  assert (H0 : SInv d s0 (split_on DOT tail)).
  { exists pre. unfold s0. cbn [i_db i_ap i_ptu i_inpre i_seen i_he]. split; [rewrite Hdd, len_app; lia|].
    repeat split. cbn [tailtext]. rewrite join_split. exact Hdd. }
  assert (HA0 : AInv s0).
  { unfold AInv, s0. cbn [i_ptu i_ap]. split; [|constructor].
    replace (len d - len tail) with (len pre) by (rewrite Hdd, len_app; lia).
    rewrite Hdd at 1. rewrite firstn_len_app. exact Hpre. }
  assert (HX : I_EXIT = IRes ptu bd he db ap -> ascii (firstn (N.to_nat ptu) d) /\ Forall mixed_ascii ap).
  { intros H. inversion H. subst. cbn [N.to_nat firstn]. split; constructor. }
  destruct (labels_loop A cfg false hy deny (split_on DOT tail) s0) as [s| |p] eqn:El; [|exact HX|discriminate].
  pose proof (labels_loop_AInv hy deny _ (split_on_nodot tail) s0 s H0 HA0 El) as HA.
  destruct (is_bidi A cfg (i_db s)) as [[|]| |p]; try discriminate.
  - destruct (bidi_labels A false (split_on DOT (i_db s)) (i_he s)) as [[ls he2]| |p]; [|exact HX|discriminate].
    intros H. inversion H. subst. exact HA.
  - intros H. inversion H. subst. exact HA.
Qed.

Theorem process_inner_ascii hy deny ptu bd he db ap :
  process_inner A cfg false hy deny d = IRes ptu bd he db ap ->
  ascii (firstn (N.to_nat ptu) d) /\ Forall mixed_ascii ap.
Proof.
  unfold process_inner. destruct (fast_tier d d) as [tail|] eqn:Ef.
  - destruct (fast_tier_some d Hd d tail Ef) as [->|(pre & Hdd & Hp)].
    + apply (process_innermost_ascii hy deny [] d); [reflexivity|constructor].
    + apply (process_innermost_ascii hy deny pre tail); [exact Hdd|].
      eapply Forall_impl; [|exact Hp]. intros a [Ha|Ha]; unfold is_ascii; [lia|rewrite Ha; unfold DOT; lia].
  - intros H. inversion H. subst. split; [|constructor].
    unfold len. rewrite Nat2N.id, firstn_all.
    eapply Forall_impl; [|exact (fast_tier_none d Hd d Ef)]. intros a [Ha|Ha]; unfold is_ascii; [lia|rewrite Ha; unfold DOT; lia].
Qed.
End AsciiInv.
