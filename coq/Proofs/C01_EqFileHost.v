(* Proofs/C01_EqFileHost.v - the host hypothesis of the file class (`host_agree_file`, Proofs/C01_EqFile.v) holds
   for the host functions of the two sides as they are: Host::parse + Display of Model/Host.v against the
   Standard's host parser (isOpaque = false) and serializer, the IDNA step being the same oracle on both sides
   whose outputs are ASCII outside the deny list.  Beyond `host_agree_special`: the two sides return the same
   KIND of host with the same payload, so "the host is the domain localhost" is decided alike, and the empty
   host serializes to the empty string. *)
From RU Require Import Base.Prelude Base.Utf8 Model.HostT Model.Host Model.UrlRecord Spec.Whatwg Spec.WhatwgHost
  Spec.WhatwgHostParse Proofs.C09_Host Proofs.C09_V4spec Proofs.C09_V6total Proofs.C01_EqSpHost
  Proofs.C01_EqFile.

Theorem host_localhost_agree idna s :
  match host_parse idna s, host_parsing (spec_host_parser idna) false s with
  | Ok h, Some sh => is_localhost_m h = is_localhost_s sh
  | _, _ => True
  end.
Proof.
  unfold host_parsing.
  destruct (Host.starts_with 91 s) eqn:Hb.
  - (* IPv6 literal *)
    rewrite (proj1 (literal_spec idna s Hb)).
    pose proof (literal_agree idna false s Hb) as L.
    destruct (literal_result s) as [h|e]; destruct (spec_host_parser idna false s) as [sh|]; try contradiction; try exact I.
    destruct L as (a & -> & -> & W). reflexivity.
  - (* domain or IPv4 *)
    rewrite (spec_parser_not_bracket_gen idna s Hb).
    unfold host_parse, host_parse_x. rewrite Hb. rewrite decode_spec.
    destruct (idna (spec_percent_decode (utf8_encode s))) as [d|] eqn:Ei; [|exact I].
    destruct d as [|d0 dr]; [cbv iota; destruct (xr_result _); exact I|]. cbv iota. remember (d0 :: dr) as d eqn:Ed.
    destruct (existsb Spec.forbidden_domain_code_point d) eqn:Ef.
    { destruct (xr_result _); exact I. }
    rewrite <- (ends_in_a_number_spec d).
    assert (d <> []) as Hne by (rewrite Ed; discriminate).
    destruct (ends_in_a_number d) eqn:En.
    + rewrite (parse_ipv4addr_spec d Hne).
      destruct (Spec.ipv4_parse d) as [a|] eqn:E4; cbn [lift4 xr_map xr_result]; [reflexivity | exact I].
    + cbn [xr_result]. reflexivity.
Qed.

Theorem host_agree_file_real idna :
  (forall bs d, idna bs = Some d -> Forall dom_char_ok d) ->
  forall s, usv_list s ->
  host_agree_file (host_parse idna) host_display (spec_host_parser idna) spec_host_serializer s.
Proof.
  intros Hout s Hu. split; [reflexivity|]. split; [exact (host_agree_special idna Hout s Hu) | exact (host_localhost_agree idna s)].
Qed.
