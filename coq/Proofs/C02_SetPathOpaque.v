(* Proofs/C02_SetPathOpaque.v - L2 for Url::set_path on the canonical records with an OPAQUE path (class (i)), outside
   F-C02-3 ('?' or '#' in the argument: the setter context of the opaque-path state does not stop at them and CONTROLS
   does not escape them; or the argument ends in a space).
   The setter writes, behind scheme ":", "%2F" when the tab/LF/CR-free argument starts with '/', then the CONTROLS
   encoding of the (rest of the) argument without tab / LF / CR; query and fragment are re-attached.  The new path is
   CONTROLS-clean, has no '?' '#', does not start with '/', and does not end in a space: the canonical opaque record. *)
From RU Require Import Base.Prelude Base.Utf8 Base.Utf8Facts Model.AsciiSet Gen.Tables
  Model.PercentEncoding Model.HostT Model.UrlRecord Model.Parser Model.Setters Model.WF
  Proofs.ListN Proofs.C14_Enc Proofs.C02_Enc Proofs.C02_Parts Proofs.C02_Opaque Proofs.C02_Path Proofs.C02_PathL1 Proofs.C02_Reach
  Proofs.C02_AuthParts Proofs.C02_Auth Proofs.C02_AuthMain Proofs.C02_SetQF Proofs.C02_Canon Proofs.C02_SetPort Proofs.C02_Hist
  Proofs.C02_SetCred Proofs.C02_SetPath Proofs.C02_SetPathNoAuth.
Open Scope N_scope.
Open Scope list_scope.

Definition no_tnl (l : list N) : list N := filter (fun c => negb (is_tnl c)) l.

Lemma usv_no_tnl l : usv_list l -> usv_list (no_tnl l).
Proof.
  induction l as [|c r IH]; intros H; [constructor|]. apply usv_cons in H. destruct H as [Hc Hr].
  unfold no_tnl. cbn [filter]. destruct (negb (is_tnl c)); [apply usv_cons; split; [exact Hc | exact (IH Hr)] | exact (IH Hr)].
Qed.

(* the opaque-path state in the setter context: no stop at '?' / '#' *)
Lemma cbb_setter_spec l : forall ser, usv_list l ->
  parse_cannot_be_a_base_path CSetter ser l = (ser ++ encode T_CONTROLS (utf8_encode (no_tnl l)), []).
Proof.
  induction l as [|c r IH]; intros ser H.
  - cbn. rewrite app_nil_r. reflexivity.
  - apply usv_cons in H. destruct H as [Hc Hr]. unfold no_tnl. cbn [parse_cannot_be_a_base_path filter].
    destruct (is_tnl c); cbn [negb]; [apply IH; exact Hr|].
    cbn [ctx_eqb]. rewrite andb_false_r. rewrite IH by exact Hr.
    rewrite push_encoded_eq by (constructor; [exact Hc | constructor]).
    rewrite <- app_assoc. change (c :: filter (fun c0 => negb (is_tnl c0)) r) with ([c] ++ no_tnl r).
    rewrite enc_utf8_app. reflexivity.
Qed.

Lemma inp_next_no_tnl l : match inp_next l with
                          | Some (c, r) => no_tnl l = c :: no_tnl r
                          | None => no_tnl l = []
                          end.
Proof.
  unfold inp_next. induction l as [|c r IH]; [reflexivity|]. cbn [drop_while]. unfold no_tnl. cbn [filter].
  destruct (is_tnl c); cbn [negb]; [exact IH | reflexivity].
Qed.

(* the new path text *)
Definition opq_path (x : list N) : list N :=
  match no_tnl x with
  | 47 :: r => [37; 50; 70] ++ encode T_CONTROLS (utf8_encode r)
  | l => encode T_CONTROLS (utf8_encode l)
  end.

Lemma opq_arg x s0 : usv_list x ->
  fst (let '(s, p') := match inp_split_prefix_char 47 (input_new_no_trim x) with
                       | Some r => (s0 ++ [37; 50; 70], r)
                       | None => (s0, input_new_no_trim x)
                       end in parse_cannot_be_a_base_path CSetter s p') = s0 ++ opq_path x.
Proof.
  intros Hx. unfold input_new_no_trim, inp_split_prefix_char, opq_path. pose proof (inp_next_no_tnl x) as Hn.
  destruct (inp_next x) as [[c r]|] eqn:En.
  - assert (usv_list r) as Hr.
    { assert (usv_list (no_tnl x)) as H1 by (apply usv_no_tnl; exact Hx). clear - En Hx.
      unfold inp_next in En. revert En. induction x as [|a x IH]; [discriminate|]. cbn [drop_while].
      apply usv_cons in Hx. destruct Hx as [_ Hx]. destruct (is_tnl a); [exact (IH Hx)|]. intros E. inversion E; subst. exact Hx. }
    rewrite Hn. destruct (c =? 47) eqn:Ec.
    + apply N.eqb_eq in Ec. subst c. rewrite (cbb_setter_spec r _ Hr). cbn [fst]. rewrite <- app_assoc. reflexivity.
    + rewrite (cbb_setter_spec x _ Hx). cbn [fst]. rewrite Hn.
      destruct c as [|pc]; [reflexivity|]. do 6 (destruct pc as [pc|pc|]; try reflexivity). discriminate Ec.
  - rewrite (cbb_setter_spec x _ Hx). cbn [fst]. rewrite Hn. reflexivity.
Qed.

Lemma opq_arg_some x s0 : usv_list x ->
  (let '(s, p') := match inp_split_prefix_char 47 (input_new_no_trim x) with
                   | Some r => (s0 ++ [37; 50; 70], r)
                   | None => (s0, input_new_no_trim x)
                   end in Some (fst (parse_cannot_be_a_base_path CSetter s p'))) = Some (s0 ++ opq_path x).
Proof.
  intros Hx. rewrite <- (opq_arg x s0 Hx). destruct (inp_split_prefix_char 47 (input_new_no_trim x)); reflexivity.
Qed.

(* the new path is a canonical opaque path *)
Lemma enc_forall_Q (Q : N -> bool) L : Q 37 = true -> all_below 16 (fun d => Q (hex_upper d)) = true -> usv_list L ->
  Forall (fun c => kept T_CONTROLS c = true -> Q c = true) L -> forallb Q (encode T_CONTROLS (utf8_encode L)) = true.
Proof. intros H1 H2 H3 H4. exact (encode_utf8_forallb T_CONTROLS Q L H1 (all_below_spec 16 _ H2) H3 H4). Qed.

Lemma last_Q (Q : N -> bool) A Bs : Bs <> [] -> forallb Q Bs = true ->
  match rev (A ++ Bs) with [] => True | c :: _ => Q c = true end.
Proof.
  intros Hne HQ. rewrite rev_app_distr. destruct (rev Bs) as [|c r] eqn:E.
  - exfalso. apply Hne. rewrite <- (rev_involutive Bs), E. reflexivity.
  - cbn [app]. rewrite forallb_forall in HQ. apply HQ. apply in_rev. rewrite E. left. reflexivity.
Qed.

Lemma kept_CONTROLS_gt32 : kept_sat T_CONTROLS (fun c => (c =? 32) || negb (c <=? 32)) = true. Proof. vm_compute. reflexivity. Qed.

Lemma enc_last_ok pre L : pre = [] \/ pre = [37; 50; 70] -> usv_list L ->
  match rev L with 32 :: _ => False | _ => True end ->
  first_ok (rev (pre ++ encode T_CONTROLS (utf8_encode L))).
Proof.
  intros Hpre HL Hlast. destruct (rev L) as [|c r'] eqn:E.
  - assert (L = []) as -> by (rewrite <- (rev_involutive L), E; reflexivity).
    change (encode T_CONTROLS (utf8_encode [])) with (@nil N). rewrite app_nil_r.
    destruct Hpre as [-> | ->]; [exact I | reflexivity].
  - assert (L = rev r' ++ [c]) as EL by (rewrite <- (rev_involutive L), E; reflexivity).
    assert (c <> 32) as Hc by (intros ->; exact Hlast).
    rewrite EL in HL |- *. apply usv_app in HL. destruct HL as [_ HL1].
    rewrite enc_utf8_app. rewrite app_assoc.
    set (Q := fun b : N => negb (b <=? 32)).
    assert (forallb Q (encode T_CONTROLS (utf8_encode [c])) = true) as HQ.
    { apply enc_forall_Q; [reflexivity | vm_compute; reflexivity | exact HL1 |].
      constructor; [|constructor]. intros Hk.
      pose proof (clean_forallb T_CONTROLS _ [c] kept_CONTROLS_gt32) as G. unfold clean in G. cbn [forallb] in G.
      rewrite Hk in G. specialize (G eq_refl). rewrite andb_true_r in G. unfold Q.
      apply orb_true_iff in G. destruct G as [G|G]; [apply N.eqb_eq in G; contradiction | exact G]. }
    assert (encode T_CONTROLS (utf8_encode [c]) <> []) as Hne.
    { intros En. apply (proj1 (encode_nil_iff _ _)) in En. apply (proj1 (utf8_encode_nil_iff _)) in En. discriminate En. }
    pose proof (last_Q Q (pre ++ encode T_CONTROLS (utf8_encode (rev r'))) _ Hne HQ) as G.
    destruct (rev ((pre ++ encode T_CONTROLS (utf8_encode (rev r'))) ++ encode T_CONTROLS (utf8_encode [c]))) as [|b t]; [exact I|].
    cbn [first_ok]. unfold Q in G. unfold is_c0_or_space. apply negb_true_iff in G. exact G.
Qed.

Lemma no_tnl_forall (Q : N -> Prop) x : Forall Q x -> Forall Q (no_tnl x).
Proof.
  intros H. apply Forall_forall. intros c Hc. unfold no_tnl in Hc. apply filter_In in Hc. rewrite Forall_forall in H. exact (H c (proj1 Hc)).
Qed.

Lemma no_tnl_not_tnl x : Forall (fun c => is_tnl c = false) (no_tnl x).
Proof.
  apply Forall_forall. intros c Hc. unfold no_tnl in Hc. apply filter_In in Hc. destruct Hc as [_ Hc]. apply negb_true_iff in Hc. exact Hc.
Qed.

Lemma Forall_tl {A} (Q : A -> Prop) a l : Forall Q (a :: l) -> Forall Q l.
Proof. intros H. inversion H; assumption. Qed.

Theorem opq_path_ok x : usv_list x -> existsb (fun c => (c =? 63) || (c =? 35)) x = false -> ends_in_space x = false ->
  clean T_CONTROLS (opq_path x) = true /\ forallb not_tnl_qh (opq_path x) = true /\ starts_with [47] (opq_path x) = false
  /\ first_ok (rev (opq_path x)).
Proof.
  intros Hx Hqh Hsp.
  assert (usv_list (no_tnl x)) as HL by (apply usv_no_tnl; exact Hx).
  assert (Forall (fun c => kept T_CONTROLS c = true -> not_tnl_qh c = true) (no_tnl x)) as HQ.
  { pose proof (no_tnl_not_tnl x) as H1.
    assert (Forall (fun c => (c =? 63) || (c =? 35) = false) (no_tnl x)) as H2.
    { apply no_tnl_forall. apply Forall_forall. intros c Hc.
      destruct ((c =? 63) || (c =? 35)) eqn:E; [|reflexivity]. exfalso.
      assert (existsb (fun c => (c =? 63) || (c =? 35)) x = true) as Ht by (apply existsb_exists; exists c; split; assumption).
      rewrite Ht in Hqh. discriminate Hqh. }
    rewrite Forall_forall in *. intros c Hc _. unfold not_tnl_qh, not_tnl, is_qh. rewrite (H1 c Hc), (H2 c Hc). reflexivity. }
  assert (match rev (no_tnl x) with 32 :: _ => False | _ => True end) as Hlast.
  { unfold ends_in_space in Hsp. fold (no_tnl x) in Hsp. destruct (rev (no_tnl x)) as [|c r]; [exact I|].
    destruct c as [|pc]; [exact I|]. do 6 (destruct pc as [pc|pc|]; try exact I). discriminate Hsp. }
  unfold opq_path. destruct (no_tnl x) as [|c L] eqn:EL.
  - repeat split; reflexivity.
  - assert (usv_list L) as HL' by (apply usv_cons in HL; tauto).
    assert (forall l, usv_list l -> Forall (fun c => kept T_CONTROLS c = true -> not_tnl_qh c = true) l ->
              clean T_CONTROLS (encode T_CONTROLS (utf8_encode l)) = true
              /\ forallb not_tnl_qh (encode T_CONTROLS (utf8_encode l)) = true) as G.
    { intros l Hl Hq. split; [apply encode_is_clean; [exact stable_CONTROLS | apply utf8_encode_bytes; exact Hl]|].
      apply enc_forall_Q; [reflexivity | vm_compute; reflexivity | exact Hl | exact Hq]. }
    destruct (c =? 47) eqn:Ec.
    + apply N.eqb_eq in Ec. subst c. destruct (G L HL' (Forall_tl _ _ _ HQ)) as [G1 G2].
      split; [rewrite clean_app, G1; reflexivity|]. split; [rewrite forallb_app, G2; reflexivity|]. split; [reflexivity|].
      apply enc_last_ok; [right; reflexivity | exact HL' |]. cbn [rev] in Hlast.
      destruct (rev L) as [|c r]; [exact I|]. cbn [app] in Hlast. exact Hlast.
    + assert ((match c :: L with 47 :: r => [37; 50; 70] ++ encode T_CONTROLS (utf8_encode r) | l => encode T_CONTROLS (utf8_encode l) end)
              = encode T_CONTROLS (utf8_encode (c :: L))) as ->.
      { destruct c as [|pc]; [reflexivity|]. do 6 (destruct pc as [pc|pc|]; try reflexivity). discriminate Ec. }
      destruct (G (c :: L) HL HQ) as [G1 G2]. split; [exact G1|]. split; [exact G2|]. split.
      * (* first byte: c itself or '%' *)
        assert (is_usv c) as Hc by (apply usv_cons in HL; tauto).
        unfold utf8_encode. cbn [flat_map]. rewrite encode_app. apply N.eqb_neq in Ec.
        unfold utf8_encode1. destruct (c <? 128) eqn:E1; [|destruct (c <? 2048) eqn:E2; [|destruct (c <? 65536) eqn:E3]];
          rewrite encode_cons; unfold enc1;
          match goal with |- context [if ?b then _ else _] => destruct b end; unfold enc_byte_spec; cbn [app starts_with];
          try reflexivity; apply andb_false_intro1; apply N.eqb_neq; lia.
      * change (encode T_CONTROLS (utf8_encode (c :: L))) with ([] ++ encode T_CONTROLS (utf8_encode (c :: L))).
        apply enc_last_ok; [left; reflexivity | exact HL | exact Hlast].
Qed.

(* the setter on the canonical opaque record *)
Section OpaquePath.
Variable dbg : bool.

Theorem set_path_opaque sch P q f x u' : opaque_ok sch P q f -> usv_list x ->
  set_path dbg (opaque_url sch P q f) x = Some u' -> u' = opaque_url sch (opq_path x) q f.
Proof.
  intros K Hx. rewrite opaque_url_qf. unfold opaque_pre, set_path. rewrite take_after_path_qf. cbn [bindo].
  unfold u_scheme_type. rewrite <- app_assoc, scheme_prefix. cbn [app]. rewrite cbb_prefix, (ok_Ph _ _ _ _ K). cbn [bindo negb].
  cbn [ser path_start]. unfold truncate. change (sch ++ 58 :: P) with (sch ++ [58] ++ P). rewrite app_assoc, nfirstn_app_len.
  rewrite (opq_arg_some x (sch ++ [58]) Hx). cbn [bindo].
  unfold set_ser. cbn [ser scheme_end username_end host_start host_end hosti port path_start query_start fragment_start].
  rewrite restore_after_path_qf. intros E. inversion E; subst u'. reflexivity.
Qed.

Variable hp hpo : list N -> result host.
Variable hd : host -> list N.

Theorem set_path_opaque_Canon sch P q f x u' : opaque_ok sch P q f -> usv_list x ->
  Known_F_C02_3 (opaque_url sch P q f) (OSetPath x) = false ->
  set_path dbg (opaque_url sch P q f) x = Some u' -> nlen (ser u') <= U32_MAX_P -> Canon hp hpo hd u'.
Proof.
  intros K Hx K3 E Hb. rewrite (set_path_opaque sch P q f x u' K Hx E) in *. apply Canon_opaque.
  assert (is_cbb (opaque_url sch P q f) = true) as Hc.
  { unfold is_cbb. cbn [opaque_url ser scheme_end]. unfold opaque_ser, opaque_pre.
    replace (nlen sch + 1) with (nlen (sch ++ [58])) by (rewrite nlen_app; reflexivity).
    rewrite <- app_assoc. rewrite nskipn_app_len.
    destruct P as [|c r]; cbn [app].
    - unfold qf_text. destruct q; [reflexivity|]. destruct f; reflexivity.
    - pose proof (ok_Ph _ _ _ _ K) as H. cbn [starts_with] in *. rewrite H. reflexivity. }
  unfold Known_F_C02_3 in K3. rewrite Hc in K3. cbn [andb] in K3. apply orb_false_iff in K3. destruct K3 as [K3a K3b].
  destruct (opq_path_ok x Hx K3a K3b) as (O1 & O2 & O3 & O4).
  destruct K as [Ksch Kns KP KPq KPh Kq Kf Klast Kb1 Kbq Kbf].
  cbn [opaque_url ser] in Hb. unfold opaque_ser in Hb. destruct (qf_bounds _ _ _ _ Hb) as [B1 B2].
  constructor; try assumption. intros _ _. exact O4.
Qed.
End OpaquePath.
