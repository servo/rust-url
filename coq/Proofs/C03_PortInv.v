(* Proofs/C03_PortInv.v - "a scheme-default port is never stored" (port() vs port_or_known_default()).
   PN u : the stored port is not the default port of the stored scheme.  wf_b does not say so; it is an
   invariant of histories:
     pn_step  : every call of the 19 mutators that step03 covers preserves PN (set_port and the quirks
                set_port / set_host normalise the port they store, set_scheme re-normalises the old one, every
                other mutator leaves scheme and port as they were or clears the port);
     file records have no port;
     ParsePN : the statement that the parser never stores a default port, as a named hypothesis (it is proved, in the
                form the histories need, in C03_ParseFront.v: parse_url_pnr; PN for every reach03a record is
                C03_ReachJoin.reach03a_pn_all). *)
From Coq Require Import String.
From RU Require Import Base.Prelude Model.HostT Model.UrlRecord Model.Parser Model.WF Model.FilePath Proofs.C02_Reach
  Proofs.C06_Port Proofs.C06_Main Proofs.C04_ParseTotal Proofs.C03_ReachParts Proofs.C03_ReachAll Proofs.C03_Reachability
  Proofs.C20_RT.
Open Scope N_scope.
Open Scope list_scope.

Definition PN (u : url) : Prop := forall sch p, scheme u = Some sch -> port u = Some p -> default_port sch <> Some p.

Lemma pn_same u u' : scheme u' = scheme u -> port u' = port u -> PN u -> PN u'.
Proof. intros Es Ep H sch p Hs Hp. rewrite Es in Hs. rewrite Ep in Hp. exact (H sch p Hs Hp). Qed.

Lemma pn_none u' : port u' = None -> PN u'.
Proof. intros Ep sch p _ Hp. rewrite Ep in Hp. discriminate. Qed.

Lemma opt_eqb_some_false p d : opt_eqb (Some p) d = false -> d <> Some p.
Proof. intros H ->. cbn in H. rewrite N.eqb_refl in H. discriminate. Qed.

Lemma norm_port_pn sch p x : norm_port sch p = Some x -> default_port sch <> Some x.
Proof.
  unfold norm_port. destruct p as [y|]; [|discriminate]. destruct (opt_eqb (Some y) (default_port sch)) eqn:E; [discriminate|].
  intros H. inversion H; subst. exact (opt_eqb_some_false _ _ E).
Qed.

Lemma port_stored_pn sch u' : scheme u' = Some sch -> port_stored sch (port u') -> PN u'.
Proof.
  intros Es St sch' p Hs Hp. rewrite Es in Hs. inversion Hs; subst sch'. rewrite Hp in St.
  destruct St as [(q & E)|(l & rem & E)]; [exact (norm_port_pn sch q p (eq_sym E)) | exact (parse_port_pn _ _ _ _ _ E)].
Qed.

Section Steps.
Variable dbg : bool.
Variable hp hpo : list N -> result host.
Variable hd : host -> list N.
Hypothesis HW : HostWf hp hpo hd.

Theorem pn_step u o u' : IpDisp hd -> wfh u -> op_args_ok o -> excl03 u o u' = false ->
  apply_op dbg hp hpo hd u o = Some u' -> PN u -> PN u'.
Proof using HW.
  intros HIP K Ha G H K0.
  destruct (step_cases dbg hp hpo hd HW u o u' HIP K Ha G H) as [->|[_ [k|k]]]; [exact K0 | |].
  - destruct k as [(Es & _ & Ep) _|(Es & _ & Ep) _|sch Hs Es _ _ St|new Es _ _ Ep _ _].
    + exact (pn_same u u' Es Ep K0).
    + exact (pn_same u u' Es Ep K0).
    + apply (port_stored_pn sch u'); [rewrite Es; exact Hs | exact St].
    + apply (port_stored_pn new u' Es). left. exists (port u). exact Ep.
  - destruct k as [sch h Hs _ Es _ _ [Ep|St]|_ _ Ep _ _].
    + exact (pn_same u u' Es Ep K0).
    + apply (port_stored_pn sch u'); [rewrite Es; exact Hs | exact St].
    + exact (pn_none u' Ep).
Qed.

End Steps.

(* the file records, and histories *)
Lemma file_rec_pn P : PN (file_rec P).
Proof. apply pn_none. reflexivity. Qed.

Section Reach.
Variable dbg : bool.
Variable hp hpo : list N -> result host.
Variable hd : host -> list N.

(* the parser never stores a default port *)
Definition ParsePN : Prop :=
  forall ovr base input u, match base with Some b => wf_b b = true /\ PN b | None => True end ->
    parse_url dbg hp hpo hd ovr base input = POk u -> PN u.

End Reach.
