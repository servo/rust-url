(* Proofs/C04_Table3.v - the inventory table of Proofs/C04_Table2.v with real claims on eleven more of the rows that still
   carried the trivial one.
   C04_Table2.table2 leaves 33 of the 167 rows with the claim True: 27 KByType rows, 2 KDocumented, 4 KHarness.  Eleven of the
   27 KByType functions DO have a Gallina model; this file replaces their trivial claim by a statement on that model:
     - Url::port                        (UrlRecord.port): on a well-formed record (wf_b) the port is a u16;
     - Url::has_host                    (UrlRecord.has_host): false exactly when Url::host() is Some None - it never
                                        disagrees with host() / host_str() / domain(), whatever the record;
     - Origin::is_tuple                 (Origin.is_tuple): false exactly when the ASCII serialization is "null";
     - Origin::ascii_serialization      (Origin.ascii_serialization): total (format!), and ASCII whenever scheme and
                                        host text are - the decimal port is ASCII for every N;
     - SchemeType::is_special / is_file (UrlRecord.st_is_special / st_is_file over scheme_type_of = SchemeType::from):
                                        exactly the six special schemes / exactly "file"; a default port implies
                                        special-not-file;
     - parser::ascii_alpha              (Prelude.is_alpha): exactly A-Z a-z, hence ASCII;
     - parser::is_windows_drive_letter  (Parser.is_wdl): exactly the two-character texts letter + ':' or '|' - the
                                        byte indexing [0], [1] of starts_with_windows_drive_letter is behind len = 2;
     - Serializer::encoding_override    (FormUrlencoded.ser_encoding_override): the one Serializer method that has NO
                                        panic outcome, even after finish(); target and start position unchanged;
     - Decoder::new                     (Base64.decoder_new): the three counters start at 0 - inside u32 / u8 / u8 -
                                        and nothing has been written to the sink;
     - DataUrl::mime_type               (DataUrl.mime_type): on a result of DataUrl::process it is the first component
                                        of parse_header on the text between "data:" and the first comma.
   table3 is COMPUTED from table2 and the list `overrides3` as table2 is from table; kinds are those of table2 (the new
   rows get KRange).  trivial_rows3_eq lists, by name and in source order, the 22 rows that stay trivial;
   why_trivial gives the reason of each one and why_total checks that every such row has a reason. *)
From Coq Require Import String Ascii.
From RU Require Import Base.Prelude Base.Utf8 Gen.Tables Model.HostT Model.UrlRecord Model.Parser Model.WF Model.Origin.
From RU Require Base.Outcome_c15 Model.FormUrlencoded Model.Base64 Model.Mime Model.DataUrl.
From RU Require Proofs.C04_Inventory Proofs.C04_Table Proofs.C04_Table2 Proofs.C04_Utf8.

Inductive claim3_id :=
| R_old (q : C04_Table2.claim2_id)
| R_port | R_has_host | R_is_tuple | R_origin_ascii | R_scheme_type | R_alpha | R_wdl | R_ser_enc | R_decoder_new
| R_mime_type.

Definition claim3_trivial (q : claim3_id) : bool :=
  match q with R_old i => C04_Table2.claim2_trivial i | _ => false end.

Definition six_special (s : list N) : Prop :=
  s = s_http \/ s = s_https \/ s = s_ws \/ s = s_wss \/ s = s_ftp \/ s = s_file.

Definition claim3 (q : claim3_id) : Prop :=
  match q with
  | R_old i => C04_Table2.claim2 i
  | R_port =>
      (* Url::port reads the field (Option<u16>); on a well-formed record the value IS a u16, and a record without
         authority has none *)
      forall u p, wf_b u = true -> port u = Some p -> p <= 65535 /\ has_authority_b u = true
  | R_has_host =>
      (* Url::has_host = !matches!(self.host, HostInternal::None): it is false exactly when Url::host() returns None
         (host() may slice - a panic outcome or Some (Some _) otherwise, never Some None), and then host_str() and
         domain() return None as well; no premise on the record *)
      forall u, (has_host u = false <-> host_of u = Some None)
                /\ (has_host u = false -> host_str u = Some None /\ domain u = Some None)
                /\ (has_host u = true -> host_str u <> Some None)
  | R_is_tuple =>
      (* Origin::is_tuple = matches!(self, Origin::Tuple(..)): false exactly when the serialization is "null" *)
      forall (hd : host -> list N) o, is_tuple o = false <-> ascii_serialization hd o = s_null
  | R_origin_ascii =>
      (* Origin::ascii_serialization (format!: total): ASCII whenever the scheme and the host text are; the port
         written by `{}` on a u16 is ASCII for every number *)
      forall (hd : host -> list N) o,
        match o with Tuple s h _ => ascii s /\ ascii (host_fmt hd h) | Opaque _ => True end ->
        ascii (ascii_serialization hd o)
  | R_scheme_type =>
      (* SchemeType::from + is_special / is_file: exactly the six special schemes, exactly "file"; is_file implies
         is_special; a scheme with a default port is special and not file *)
      forall s, (st_is_special (scheme_type_of s) = true <-> six_special s)
                /\ (st_is_file (scheme_type_of s) = true <-> s = s_file)
                /\ (st_is_file (scheme_type_of s) = true -> st_is_special (scheme_type_of s) = true)
                /\ (default_port s <> None -> scheme_type_of s = STSpecialNotFile)
  | R_alpha =>
      (* parser::ascii_alpha = ch.is_ascii_alphabetic() *)
      forall c, is_alpha c = true <-> (65 <= c <= 90 \/ 97 <= c <= 122)
  | R_wdl =>
      (* parser::is_windows_drive_letter(segment) = segment.len() == 2 && starts_with_windows_drive_letter(segment):
         the indexing as_bytes()[0], [1] happens behind len == 2, [2] behind len != 2; exact class *)
      forall s, (is_wdl s = true <-> exists a b, s = [a; b] /\ is_alpha a = true /\ (b = 58 \/ b = 124))
                /\ (is_normalized_wdl s = true <-> exists a, s = [a; 58] /\ is_alpha a = true)
  | R_ser_enc =>
      (* Serializer::encoding_override: no panic outcome on any serializer - finished ones included, unlike every other
         method -; target and start position are kept *)
      forall (T : Type) (s : FormUrlencoded.serializer T) o,
        exists s', FormUrlencoded.ser_encoding_override T s o = Outcome_c15.Ok s'
                   /\ FormUrlencoded.ser_target s' = FormUrlencoded.ser_target s
                   /\ FormUrlencoded.ser_start s' = FormUrlencoded.ser_start s
  | R_decoder_new =>
      (* Decoder::new: bit_buffer (u32), buffer_bit_length (u8), padding_symbols (u8) start at 0; the sink is the
         argument *)
      forall (W : Type) (w : W),
        Base64.d_sink (Base64.decoder_new w) = w
        /\ Base64.d_buf (Base64.decoder_new w) = 0 /\ Base64.d_len (Base64.decoder_new w) = 0
        /\ Base64.d_pad (Base64.decoder_new w) = 0
  | R_mime_type =>
      (* DataUrl::mime_type on a result of DataUrl::process: the record it hands out is the first component of
         parse_header on the header text between "data:" and the first comma (C17_mime_type ties that one to Fetch),
         the base64 flag is the second, the body is what follows the comma *)
      forall input u, DataUrl.process input = Mime.Ok (inl u) ->
        exists after h B, DataUrl.pretend_parse_data_url (utf8_encode input) = Mime.Ok (Some after)
          /\ DataUrl.find_comma_before_fragment after = Mime.Ok (Some (h, B))
          /\ DataUrl.parse_header h = Mime.Ok (DataUrl.mime_type u, DataUrl.du_base64 u)
          /\ DataUrl.du_encoded_body_plus_fragment u = B
  end.

(* ---------------------------------------------------------------- proofs *)
Ltac split_andb :=
  repeat match goal with
         | H : (_ && _) = true |- _ => apply andb_prop in H; destruct H
         end.

Lemma port_claim u p : wf_b u = true -> port u = Some p -> p <= 65535 /\ has_authority_b u = true.
Proof.
  intros Hw Hp. unfold wf_b in Hw. apply andb_prop in Hw. destruct Hw as [Hw _].
  apply andb_prop in Hw. destruct Hw as [_ Hw].
  destruct (has_authority_b u) eqn:Ea.
  - split; [|reflexivity]. unfold wf_authority in Hw. cbv zeta in Hw.
    apply andb_prop in Hw. destruct Hw as [Hw _]. apply andb_prop in Hw. destruct Hw as [_ Hw].
    rewrite Hp in Hw. apply andb_prop in Hw. destruct Hw as [_ Hw]. lia.
  - exfalso. unfold wf_no_authority in Hw. cbv zeta in Hw.
    apply andb_prop in Hw. destruct Hw as [Hw _]. apply andb_prop in Hw. destruct Hw as [Hw _].
    apply andb_prop in Hw. destruct Hw as [_ Hw]. rewrite Hp in Hw. discriminate.
Qed.

Lemma has_host_claim u :
  (has_host u = false <-> host_of u = Some None)
  /\ (has_host u = false -> host_str u = Some None /\ domain u = Some None)
  /\ (has_host u = true -> host_str u <> Some None).
Proof.
  unfold has_host, host_of, host_str, domain, has_host. destruct (hosti u) as [| |a|p].
  - split; [split; reflexivity|]. split; [intros _; split; reflexivity | discriminate].
  - split; [|split; [discriminate|]].
    + split; [discriminate|]. destruct (u_slice u (host_start u) (host_end u)); cbn; discriminate.
    + intros _. destruct (u_slice u (host_start u) (host_end u)); cbn; discriminate.
  - split; [split; discriminate|]. split; [discriminate|].
    intros _. destruct (u_slice u (host_start u) (host_end u)); cbn; discriminate.
  - split; [split; discriminate|]. split; [discriminate|].
    intros _. destruct (u_slice u (host_start u) (host_end u)); cbn; discriminate.
Qed.

Lemma tuple_ser_colon hd s h p : In 58 (ascii_serialization hd (Tuple s h p)).
Proof.
  cbn [ascii_serialization]. unfold tuple_serialization, s_css.
  destruct (opt_eqb (default_port s) (Some p)); apply in_or_app; right; left; reflexivity.
Qed.

Lemma is_tuple_claim (hd : host -> list N) o : is_tuple o = false <-> ascii_serialization hd o = s_null.
Proof.
  destruct o as [i|s h p]; cbn [is_tuple].
  - split; reflexivity.
  - split; [discriminate|]. intros H. exfalso. pose proof (tuple_ser_colon hd s h p) as Hin. rewrite H in Hin.
    unfold s_null in Hin. cbn [In] in Hin. lia.
Qed.

Lemma decimal_ascii n : ascii (decimal n).
Proof.
  unfold decimal, ascii. apply Forall_rev. eapply Forall_impl; [|exact (C04_Utf8.decimal_rev_digits 40 n)].
  cbv beta. unfold is_ascii. intros a Ha. lia.
Qed.

Lemma origin_ascii_claim (hd : host -> list N) o :
  match o with Tuple s h _ => ascii s /\ ascii (host_fmt hd h) | Opaque _ => True end ->
  ascii (ascii_serialization hd o).
Proof.
  destruct o as [i|s h p]; cbn [ascii_serialization].
  - intros _. unfold s_null, ascii. repeat constructor.
  - intros [Hs Hh]. assert (ascii s_css) as Hc by (unfold s_css, ascii; repeat constructor).
    assert (ascii [58]) as H58 by (unfold ascii; repeat constructor).
    unfold tuple_serialization. destruct (opt_eqb (default_port s) (Some p)).
    + apply ascii_app. split; [exact Hs|]. apply ascii_app. split; assumption.
    + apply ascii_app. split; [exact Hs|]. apply ascii_app. split; [exact Hc|]. apply ascii_app. split; [exact Hh|].
      apply ascii_app. split; [exact H58 | apply decimal_ascii].
Qed.

Lemma list_eqb_false_ne a b : list_eqb a b = false -> a <> b.
Proof. intros H E. apply list_eqb_spec in E. rewrite E in H. discriminate. Qed.

Ltac st_fin :=
  repeat split;
  first [ solve [auto 10] | (intros Hst; discriminate Hst) | (intros Hst; exfalso; apply Hst; discriminate) ].

Lemma scheme_type_claim s :
  (st_is_special (scheme_type_of s) = true <-> six_special s)
  /\ (st_is_file (scheme_type_of s) = true <-> s = s_file)
  /\ (st_is_file (scheme_type_of s) = true -> st_is_special (scheme_type_of s) = true)
  /\ (default_port s <> None -> scheme_type_of s = STSpecialNotFile).
Proof.
  unfold scheme_type_of, default_port, six_special.
  destruct (list_eqb s s_http) eqn:E1; [apply list_eqb_spec in E1; subst s; vm_compute; st_fin|].
  destruct (list_eqb s s_https) eqn:E2; [apply list_eqb_spec in E2; subst s; vm_compute; st_fin|].
  destruct (list_eqb s s_ws) eqn:E3; [apply list_eqb_spec in E3; subst s; vm_compute; st_fin|].
  destruct (list_eqb s s_wss) eqn:E4; [apply list_eqb_spec in E4; subst s; vm_compute; st_fin|].
  destruct (list_eqb s s_ftp) eqn:E5; [apply list_eqb_spec in E5; subst s; vm_compute; st_fin|].
  apply list_eqb_false_ne in E1, E2, E3, E4, E5. cbn [orb].
  destruct (list_eqb s s_file) eqn:E6.
  - apply list_eqb_spec in E6. cbn [st_is_special st_is_file]. split; [|split; [|split]].
    + split; [intros _; do 5 right; exact E6 | reflexivity].
    + split; [intros _; exact E6 | reflexivity].
    + reflexivity.
    + intros H. exfalso. apply H. reflexivity.
  - apply list_eqb_false_ne in E6. cbn [st_is_special st_is_file]. split; [|split; [|split]].
    + split; [discriminate|]. intros [H|[H|[H|[H|[H|H]]]]]; contradiction.
    + split; [discriminate | intros H; contradiction].
    + discriminate.
    + intros H. exfalso. apply H. reflexivity.
Qed.

Lemma alpha_claim c : is_alpha c = true <-> (65 <= c <= 90 \/ 97 <= c <= 122).
Proof. unfold is_alpha, is_upper, is_lower. lia. Qed.

Lemma wdl_claim s :
  (is_wdl s = true <-> exists a b, s = [a; b] /\ is_alpha a = true /\ (b = 58 \/ b = 124))
  /\ (is_normalized_wdl s = true <-> exists a, s = [a; 58] /\ is_alpha a = true).
Proof.
  unfold is_normalized_wdl, is_wdl, starts_with_wdl.
  destruct s as [|a [|b [|c r]]]; cbn [length Nat.eqb andb].
  - split; (split; [discriminate|]); [intros (a & b & H & _) | intros (a & H & _)]; discriminate.
  - split; (split; [discriminate|]); [intros (a' & b & H & _) | intros (a' & H & _)]; discriminate.
  - split; split.
    + intros H. exists a, b. split; [reflexivity|]. destruct (is_alpha a); [|discriminate]. split; [reflexivity|]. lia.
    + intros (a' & b' & H & Ha & Hb). inversion H; subst. rewrite Ha. lia.
    + intros H. exists a. destruct (is_alpha a); [|discriminate]. split; [|reflexivity]. f_equal. f_equal. lia.
    + intros (a' & H & Ha). inversion H; subst. rewrite Ha. reflexivity.
  - split; (split; [discriminate|]); [intros (a' & b' & H & _) | intros (a' & H & _)]; discriminate.
Qed.

Lemma mime_type_claim input u : DataUrl.process input = Mime.Ok (inl u) ->
  exists after h B, DataUrl.pretend_parse_data_url (utf8_encode input) = Mime.Ok (Some after)
    /\ DataUrl.find_comma_before_fragment after = Mime.Ok (Some (h, B))
    /\ DataUrl.parse_header h = Mime.Ok (DataUrl.mime_type u, DataUrl.du_base64 u)
    /\ DataUrl.du_encoded_body_plus_fragment u = B.
Proof.
  unfold DataUrl.process, DataUrl.process_bytes. intros H.
  destruct (DataUrl.pretend_parse_data_url (utf8_encode input)) as [[after|]| |] eqn:E1; cbn [Mime.bind] in H;
    try discriminate H.
  destruct (DataUrl.find_comma_before_fragment after) as [[[h B]|]| |] eqn:E2; cbn [Mime.bind] in H; try discriminate H.
  destruct (DataUrl.parse_header h) as [[m b]| |] eqn:E3; cbn [Mime.bind fst snd] in H; try discriminate H.
  inversion H; subst. exists after, h, B. unfold DataUrl.mime_type.
  cbn [DataUrl.du_mime_type DataUrl.du_base64 DataUrl.du_encoded_body_plus_fragment].
  repeat split; assumption.
Qed.

Theorem claims3_hold : forall q, claim3 q.
Proof.
  destruct q; cbn [claim3].
  - apply C04_Table2.claims2_hold.
  - exact port_claim.
  - exact has_host_claim.
  - exact is_tuple_claim.
  - exact origin_ascii_claim.
  - exact scheme_type_claim.
  - exact alpha_claim.
  - exact wdl_claim.
  - intros T s o. eexists. split; [reflexivity|]. split; reflexivity.
  - intros W w. repeat split.
  - exact mime_type_claim.
Qed.

(* ---------------------------------------------------------------- the table *)
Record row3 := R3 { r3_crate : string; r3_name : string; r3_kind : C04_Table2.kind2; r3_claim : claim3_id;
                    r3_theorem : string }.

Local Open Scope string_scope.
(* (crate, name, claim, where the claim is pinned) - every entry replaces the trivial claim of a K KByType row of table2 *)
Definition overrides3 : list (string * string * claim3_id * string) := [
  ("url", "Url::has_host", R_has_host, "C04_no_panic_inventory3 (claim R_has_host)");
  ("url", "Url::port", R_port, "C04_no_panic_inventory3 (claim R_port)");
  ("url", "Origin::is_tuple", R_is_tuple, "C04_no_panic_inventory3 (claim R_is_tuple)");
  ("url", "Origin::ascii_serialization", R_origin_ascii, "C04_no_panic_inventory3 (claim R_origin_ascii)");
  ("url", "SchemeType::is_special", R_scheme_type, "C04_no_panic_inventory3 (claim R_scheme_type)");
  ("url", "SchemeType::is_file", R_scheme_type, "C04_no_panic_inventory3 (claim R_scheme_type)");
  ("url", "parser::ascii_alpha", R_alpha, "C04_no_panic_inventory3 (claim R_alpha)");
  ("url", "parser::is_windows_drive_letter", R_wdl, "C04_no_panic_inventory3 (claim R_wdl)");
  ("form_urlencoded", "Serializer::encoding_override", R_ser_enc, "C04_no_panic_inventory3 (claim R_ser_enc)");
  ("data_url", "DataUrl::mime_type", R_mime_type, "C04_no_panic_inventory3 (claim R_mime_type) + C17_mime_type");
  ("data_url", "Decoder::new", R_decoder_new, "C04_no_panic_inventory3 (claim R_decoder_new)")
].

(* the rows that stay trivial, with the reason (checked against the table below: why_total) *)
Definition why_trivial : list (string * string * string) := [
  ("url", "ParseOptions::base_url", "builder: stores the argument in a field; no model");
  ("url", "ParseOptions::encoding_override", "builder: stores the argument in a field; no model");
  ("url", "ParseOptions::syntax_violation_callback", "KHarness: callback plumbing; no model");
  ("url", "Url::options", "constructor of ParseOptions (all fields None); no model");
  ("url", "Url::as_str", "field read &self.serialization = UrlRecord.ser; nothing to state beside the record invariants of C02 / C03");
  ("url", "Url::into_string", "field move self.serialization = UrlRecord.ser; nothing to state");
  ("url", "Url::socket_addrs", "KHarness: std::net I/O; no model");
  ("url", "Url::serialize_internal", "KHarness: serde; no model");
  ("url", "Url::deserialize_internal", "KHarness: serde; no model");
  ("url", "Host::to_owned", "Host<&str> -> Host<String> clone; the model has one host type, the function is the identity on it");
  ("url", "SyntaxViolation::description", "match of a fieldless enum to string literals; no model");
  ("url", "Parser::for_setter", "constructor of Parser around a String; no model (the setters take the serialization directly)");
  ("url", "quirks::internal_components", "copies nine fields of the record into InternalComponents; no model");
  ("url", "quirks::href", "= Url::as_str (Setters.q_href u = ser u by definition); nothing to state");
  ("idna", "Idna::new", "deprecated constructor: stores the Config; no model");
  ("idna", "Config::use_std3_ascii_rules", "builder: sets one bool of Uts46.config; no model function");
  ("idna", "Config::transitional_processing", "builder: sets one bool of Uts46.config; no model function");
  ("idna", "Config::verify_dns_length", "builder: sets one bool of Uts46.config; no model function");
  ("idna", "Config::check_hyphens", "builder: sets one bool of Uts46.config; no model function");
  ("idna", "Config::use_idna_2008_rules", "KDocumented: documented panic, probed by the harness; no model");
  ("idna", "AsciiDenyList::new", "KDocumented: documented panic of a const fn, probed by the harness; no model");
  ("idna", "Uts46::new", "constructor of a unit-like struct; no model")
].
Local Close Scope string_scope.

Definition o_crate (o : string * string * claim3_id * string) : string := fst (fst (fst o)).
Definition o_name (o : string * string * claim3_id * string) : string := snd (fst (fst o)).
Definition o_claim (o : string * string * claim3_id * string) : claim3_id := snd (fst o).
Definition o_theorem (o : string * string * claim3_id * string) : string := snd o.

Definition find_override3 (crate name : string) : option (string * string * claim3_id * string) :=
  find (fun o => String.eqb crate (o_crate o) && String.eqb name (o_name o)) overrides3.

Definition upgrade3 (r : C04_Table2.row2) : row3 :=
  match find_override3 (C04_Table2.r2_crate r) (C04_Table2.r2_name r) with
  | Some o => R3 (C04_Table2.r2_crate r) (C04_Table2.r2_name r) C04_Table2.KRange (o_claim o) (o_theorem o)
  | None => R3 (C04_Table2.r2_crate r) (C04_Table2.r2_name r) (C04_Table2.r2_kind r) (R_old (C04_Table2.r2_claim r))
               (C04_Table2.r2_theorem r)
  end.

Definition table3 : list row3 := map upgrade3 C04_Table2.table2.

Definition row3_key (r : row3) : list N * list N :=
  (C04_Inventory.bytes_of_string (r3_crate r), C04_Inventory.bytes_of_string (r3_name r)).

Definition count_kind3 (k : C04_Table2.kind2) : nat :=
  length (filter (fun r => C04_Table2.kind2_eqb (r3_kind r) k) table3).

(* every regenerated public function has exactly one row, in source order *)
Theorem table3_complete : map row3_key table3 = T_C04_API.
Proof. vm_compute. reflexivity. Qed.

(* every override names exactly one row of table2, and that row was K KByType with the trivial claim; the new claim is
   not the trivial one *)
Definition overrides3_sound_b : bool :=
  forallb (fun o =>
    Nat.eqb (length (filter (fun r => String.eqb (C04_Table2.r2_crate r) (o_crate o)
                                      && String.eqb (C04_Table2.r2_name r) (o_name o)
                                      && C04_Table2.kind2_eqb (C04_Table2.r2_kind r) (C04_Table2.K C04_Table.KByType)
                                      && C04_Table2.claim2_trivial (C04_Table2.r2_claim r)) C04_Table2.table2)) 1
    && negb (claim3_trivial (o_claim o))) overrides3.
Theorem overrides3_sound : overrides3_sound_b = true.
Proof. vm_compute. reflexivity. Qed.

(* the rows that are not overridden are the rows of table2: kind and pinned theorem *)
Definition table3_keeps_b : bool :=
  forallb (fun p => match find_override3 (C04_Table2.r2_crate (fst p)) (C04_Table2.r2_name (fst p)) with
                    | Some _ => C04_Table2.kind2_eqb (r3_kind (snd p)) C04_Table2.KRange
                    | None => C04_Table2.kind2_eqb (r3_kind (snd p)) (C04_Table2.r2_kind (fst p))
                              && String.eqb (r3_theorem (snd p)) (C04_Table2.r2_theorem (fst p))
                    end) (combine C04_Table2.table2 table3).
Theorem table3_keeps : table3_keeps_b = true.
Proof. vm_compute. reflexivity. Qed.

(* exactly the rows of kind K KByType / K KDocumented / K KHarness carry the trivial claim *)
Definition kinds3_consistent_b : bool :=
  forallb (fun r => Bool.eqb (C04_Table2.trivial_kind2 (r3_kind r)) (claim3_trivial (r3_claim r))) table3.
Theorem kinds3_consistent : kinds3_consistent_b = true.
Proof. vm_compute. reflexivity. Qed.

(* the claim of every row holds *)
Theorem table3_sound : Forall (fun r => claim3 (r3_claim r)) table3.
Proof. apply Forall_forall. intros r _. apply claims3_hold. Qed.

(* rows with a claim on a model (not the trivial one) *)
Definition model_rows : nat := length (filter (fun r => negb (claim3_trivial (r3_claim r))) table3).

Theorem table3_counts :
  length table3 = 167%nat /\ length overrides3 = 11%nat /\ model_rows = 145%nat
  /\ count_kind3 (C04_Table2.K C04_Table.KTheorem) = 76%nat /\ count_kind3 (C04_Table2.K C04_Table.KExact) = 20%nat
  /\ count_kind3 (C04_Table2.K C04_Table.KOutside) = 17%nat /\ count_kind3 C04_Table2.KRange = 32%nat
  /\ count_kind3 (C04_Table2.K C04_Table.KByType) = 16%nat /\ count_kind3 (C04_Table2.K C04_Table.KDocumented) = 2%nat
  /\ count_kind3 (C04_Table2.K C04_Table.KHarness) = 4%nat.
Proof. vm_compute. repeat split. Qed.

(* the rows still carrying the trivial claim: exactly the rows of why_trivial, in source order *)
Definition trivial_rows3 : list (string * string) :=
  map (fun r => (r3_crate r, r3_name r)) (filter (fun r => claim3_trivial (r3_claim r)) table3).

Definition pair_eqb (a b : string * string) : bool := String.eqb (fst a) (fst b) && String.eqb (snd a) (snd b).
Fixpoint pairs_eqb (a b : list (string * string)) : bool :=
  match a, b with
  | [], [] => true
  | x :: a', y :: b' => pair_eqb x y && pairs_eqb a' b'
  | _, _ => false
  end.

Definition why_total_b : bool :=
  pairs_eqb trivial_rows3 (map (fun w => (fst (fst w), snd (fst w))) why_trivial)
  && Nat.eqb (length why_trivial) 22.
Theorem why_total : why_total_b = true.
Proof. vm_compute. reflexivity. Qed.
