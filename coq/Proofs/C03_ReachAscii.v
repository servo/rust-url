(* Proofs/C03_ReachAscii.v - the serialization of every reach03a record consists of bytes 0x20..0x7E (C05's
   alphabet invariant, carried over to C02's operation type and to the file-path constructors), hence it is
   ASCII and no Position-based slice can split a character. *)
From RU Require Import Base.Prelude Model.HostT Model.UrlRecord Model.Parser Proofs.C05_Enc Proofs.C05_Parser Proofs.C05_Setters
  Proofs.C05_CompSteps3 Proofs.C05_Alphabet Proofs.C03_Reachability Proofs.C20_RT.
Open Scope N_scope.
Open Scope list_scope.

(* C02's operations as C05's *)
Definition op5 (o : C02_Reach.op) : C05_History.op :=
  match o with
  | C02_Reach.OSetFragment f => C05_History.OSetFragment f
  | C02_Reach.OSetQuery q => C05_History.OSetQuery q
  | C02_Reach.OSetPath p => C05_History.OSetPath p
  | C02_Reach.OSetPort p => C05_History.OSetPort p
  | C02_Reach.OSetHost h => C05_History.OSetHost h
  | C02_Reach.OSetIpHost h => C05_History.OSetIpHost h
  | C02_Reach.OSetPassword p => C05_History.OSetPassword p
  | C02_Reach.OSetUsername s => C05_History.OSetUsername s
  | C02_Reach.OSetScheme s => C05_History.OSetScheme s
  | C02_Reach.OPathSegments ops => C05_History.OPathSegments ops
  | C02_Reach.OQProtocol s => C05_History.OQProtocol s
  | C02_Reach.OQUsername s => C05_History.OQUsername s
  | C02_Reach.OQPassword s => C05_History.OQPassword s
  | C02_Reach.OQHost s => C05_History.OQHost s
  | C02_Reach.OQHostname s => C05_History.OQHostname s
  | C02_Reach.OQPort s => C05_History.OQPort s
  | C02_Reach.OQPathname s => C05_History.OQPathname s
  | C02_Reach.OQSearch s => C05_History.OQSearch s
  | C02_Reach.OQHash s => C05_History.OQHash s
  end.

Lemma apply_op5 dbg hp hpo hd u o :
  C02_Reach.apply_op dbg hp hpo hd u o = C05_History.apply_op dbg hp hpo hd u (op5 o).
Proof.
  destruct o; cbn [C02_Reach.apply_op C05_History.apply_op op5]; try reflexivity;
    match goal with |- option_map fst ?r = _ => destruct r as [[? ?]|]; reflexivity end.
Qed.

Lemma oks_ascii l : Forall ok_or_space l -> ascii l.
Proof. apply Forall_impl. unfold ok_or_space, is_ascii. intros b Hb. lia. Qed.

Lemma parse_url_oks dbg hp hpo hd ovr base input u : HostOK hp hpo hd ->
  match base with Some b => Forall ok_or_space (ser b) | None => True end ->
  parse_url dbg hp hpo hd ovr base input = POk u -> Forall ok_or_space (ser u).
Proof.
  intros HOK Hb Hp.
  exact (parse_url_okl ok_or_space ok_byte_or_space dbg hp hpo hd ovr HOK base input u (fun _ => ok_or_space_32) Hp Hb).
Qed.

Lemma file_rec_oks P : file_path_ok P -> Forall ok_or_space (ser (file_rec P)).
Proof.
  intros [_ F]. cbn [file_rec ser]. apply Forall_app. split.
  - repeat constructor; unfold ok_or_space; lia.
  - eapply Forall_impl; [|exact F]. intros b [Hb _]. exact (ok_byte_or_space b Hb).
Qed.

(* a step with Rust-typed arguments: an address value is displayed inside 0x21..0x7E *)
Lemma apply_op_oks_args dbg hp hpo hd u o u' : HostOK hp hpo hd -> IpOKv hd -> C02_Reach.op_args_ok o ->
  C02_Reach.apply_op dbg hp hpo hd u o = Some u' -> Forall ok_or_space (ser u) -> Forall ok_or_space (ser u').
Proof.
  intros HOK HV Ha H Hs. rewrite apply_op5 in H.
  change (okl ok_or_space (ser u')). change (okl ok_or_space (ser u)) in Hs.
  destruct o; cbn [op5 C05_History.apply_op] in H; cbn [C02_Reach.op_args_ok] in Ha;
    try (apply C05_History.drop_status_some in H; destruct H as [st H]).
  - eapply set_fragment_okl; [exact ok_byte_or_space | eassumption ..].
  - eapply set_query_okl; [exact ok_byte_or_space | eassumption ..].
  - eapply set_path_okl; [exact ok_byte_or_space | exact ok_or_space_32 | eassumption ..].
  - eapply set_port_okl; [exact ok_byte_or_space | eassumption ..].
  - eapply set_host_okl; [exact ok_byte_or_space | exact HOK | eassumption ..].
  - eapply set_ip_host_okl; [exact ok_byte_or_space | | exact H | exact Hs].
    apply (okl_ok _ ok_byte_or_space). apply HV. destruct h; exact Ha.
  - eapply set_password_okl; [exact ok_byte_or_space | eassumption ..].
  - eapply set_username_okl; [exact ok_byte_or_space | eassumption ..].
  - eapply set_scheme_okl; [exact ok_byte_or_space | eassumption ..].
  - eapply path_segments_session_okl; [exact ok_byte_or_space | eassumption ..].
  - eapply q_set_protocol_okl; [exact ok_byte_or_space | eassumption ..].
  - eapply q_set_username_okl; [exact ok_byte_or_space | eassumption ..].
  - eapply q_set_password_okl; [exact ok_byte_or_space | eassumption ..].
  - eapply q_set_host_okl; [exact ok_byte_or_space | exact HOK | eassumption ..].
  - eapply q_set_hostname_okl; [exact ok_byte_or_space | exact HOK | eassumption ..].
  - eapply q_set_port_okl; [exact ok_byte_or_space | eassumption ..].
  - eapply q_set_pathname_okl; [exact ok_byte_or_space | exact ok_or_space_32 | eassumption ..].
  - eapply q_set_search_okl; [exact ok_byte_or_space | eassumption ..].
  - eapply q_set_hash_okl; [exact ok_byte_or_space | eassumption ..].
Qed.

Section Ascii.
Variable dbg : bool.
Variable hp hpo : list N -> result host.
Variable hd : host -> list N.
Hypothesis HOK : HostOK hp hpo hd.

Section Values.
Hypothesis HIP : IpOKv hd.

Theorem reach03a_alphabet_v u : reach03a dbg hp hpo hd u -> Forall ok_or_space (ser u).
Proof using HOK HIP.
  revert u. apply reach03a_closed.
  - intros ovr input u' Hp. exact (parse_url_oks dbg hp hpo hd ovr None input u' HOK I Hp).
  - intros ovr b input u' _ Ob _ Hp. exact (parse_url_oks dbg hp hpo hd ovr (Some b) input u' HOK Ob Hp).
  - exact file_rec_oks.
  - intros u0 o u' _ Ou Ha _ H. exact (apply_op_oks_args dbg hp hpo hd u0 o u' HOK HIP Ha H Ou).
Qed.

Theorem reach03a_ascii_v u : reach03a dbg hp hpo hd u -> ascii (ser u).
Proof using HOK HIP. intros R. exact (oks_ascii _ (reach03a_alphabet_v u R)). Qed.
End Values.

(* C05's IpOK speaks of every host that is not a domain, ill-typed address values included *)
Hypothesis HIP : IpOK hd.

Theorem reach03a_alphabet u : reach03a dbg hp hpo hd u -> Forall ok_or_space (ser u).
Proof using HOK HIP. exact (reach03a_alphabet_v (fun h Hh => HIP h (ip_arg_is_ip h Hh)) u). Qed.

Theorem reach03a_ascii u : reach03a dbg hp hpo hd u -> ascii (ser u).
Proof using HOK HIP. exact (reach03a_ascii_v (fun h Hh => HIP h (ip_arg_is_ip h Hh)) u). Qed.
End Ascii.
