(* Proofs/C04_CostPath.v - the path state is NOT linear in the cost model of Model/Cost.v.
   F-C04-8: every ".." segment resolved at the root of the path makes last_slash_can_be_removed search
   the whole serialization in front of the path for a '/', so m such segments behind a prefix of
   length L cost at least m * L steps (family "aaaa...:/../../../").
   F-C04-6: PathSegmentsMut::extend on a file: URL copies the whole path once per segment. *)
From RU Require Import Base.Prelude Base.Utf8 Base.Utf8Facts Model.AsciiSet Gen.Tables
  Model.PercentEncoding Model.HostT Model.UrlRecord Model.Parser Model.Setters Model.WF Model.Cost
  Proofs.ListN Proofs.C14_Set Proofs.C14_Enc Proofs.C14_Views Proofs.C02_Enc Proofs.C02_Parts
  Proofs.C02_Opaque Proofs.C02_Path Proofs.C02_PathL1 Proofs.C04_Cost.

(* the input "../" m times *)
Fixpoint dotdots (m : nat) : list N :=
  match m with O => [] | S k => 46 :: 46 :: 47 :: dotdots k end.

Section Root.
Variable pre : list N.
Variable dbg : bool.
Hypothesis pre_no_slash : no_byte 47 pre = true.
Notation ps := (nlen pre).
Notation P := (pre ++ [47]).

Lemma nlen_P : nlen P = ps + 1.
Proof. rewrite nlen_app. reflexivity. Qed.

(* finish_segment on  pre "/" ".." "/"  gives back  pre "/" *)
Lemma finish_dotdot_root hh :
  finish_segment dbg STNotSpecial ps (P ++ [46; 46] ++ [47]) (nlen P) true hh = POk (P, hh).
Proof.
  set (s1 := P ++ [46; 46] ++ [47]).
  assert (slice_o s1 (nlen P) (nlen s1 - 1) = Some [46; 46]) as Hslice.
  { assert (nlen s1 - 1 = nlen P + nlen [46; 46]) as E
      by (unfold s1; rewrite !nlen_app; unfold nlen; cbn [length]; lia).
    rewrite E. unfold s1. apply slice_mid. }
  unfold finish_segment. rewrite Hslice. cbn [of_option pbind is_double_dot].
  assert ((if dbg then match (if 1 <=? nlen P then nnth s1 (nlen P - 1) else None) with
                       | Some b => passert (b =? 47) | None => PPanic end else POk tt) = POk tt) as Hdbg.
  { destruct dbg; [|reflexivity]. rewrite nlen_P. replace (1 <=? ps + 1) with true by lia.
    replace (ps + 1 - 1) with ps by lia. unfold s1. rewrite <- app_assoc.
    change ([47] ++ [46; 46] ++ [47]) with (47 :: [46; 46; 47]).
    unfold nnth, nlen. rewrite Nat2N.id. rewrite nth_error_app2 by lia. rewrite Nat.sub_diag. reflexivity. }
  rewrite Hdbg. cbn [pbind].
  assert (truncate s1 (nlen P) = P) as Htr by (unfold truncate, s1; apply nfirstn_app_len).
  rewrite Htr. rewrite ends_with_byte_snoc. cbn [andb].
  assert (last_slash_can_be_removed P ps = false) as Hl.
  { unfold last_slash_can_be_removed. rewrite nlen_P. replace (ps + 1 - 1) with ps by lia.
    rewrite nfirstn_app_len. rewrite (rfind_none 47 pre pre_no_slash). reflexivity. }
  rewrite Hl.
  assert (shorten_path STNotSpecial ps P = POk P) as Hsh.
  { unfold shorten_path, pop_path. rewrite nlen_P.
    replace (ps + 1 =? ps) with false by lia. cbn [st_is_file andb].
    replace (ps <? ps + 1) with true by lia. rewrite nskipn_app_len.
    change (rfind 47 [47]) with (Some 0). unfold truncate.
    replace (ps + 0 + 1) with (nlen P) by (rewrite nlen_P; lia). rewrite nfirstn_all by lia. reflexivity. }
  rewrite Hsh. cbn [pbind]. rewrite ends_with_byte_snoc. reflexivity.
Qed.

Lemma finish_dotdot_root_cost :
  ps + 1 <= finish_segment_cost STNotSpecial ps (P ++ [46; 46] ++ [47]) (nlen P) true.
Proof.
  set (s1 := P ++ [46; 46] ++ [47]).
  assert (slice_o s1 (nlen P) (nlen s1 - 1) = Some [46; 46]) as Hslice.
  { assert (nlen s1 - 1 = nlen P + nlen [46; 46]) as E
      by (unfold s1; rewrite !nlen_app; unfold nlen; cbn [length]; lia).
    rewrite E. unfold s1. apply slice_mid. }
  unfold finish_segment_cost. rewrite Hslice. cbn [is_double_dot].
  assert (truncate s1 (nlen P) = P) as Htr by (unfold truncate, s1; apply nfirstn_app_len).
  rewrite Htr. rewrite ends_with_byte_snoc.
  assert (last_slash_cost P = ps + 1) as Hc.
  { unfold last_slash_cost, rcost. rewrite nlen_P. replace (ps + 1 - 1) with ps by lia.
    rewrite nfirstn_app_len. rewrite (rfind_none 47 pre pre_no_slash). lia. }
  rewrite Hc. lia.
Qed.

(* the pending ".." is written as ".." *)
Lemma push_dotdot ser : push_pending CUrlParser STNotSpecial ser [46; 46] = ser ++ [46; 46].
Proof.
  rewrite push_pending_eq by (repeat constructor; unfold is_usv; lia).
  replace (encode T_PATH (utf8_encode (rev [46; 46]))) with [46; 46] by (vm_compute; reflexivity). reflexivity.
Qed.

(* m rounds cost at least m * (L + 1), and the state is back at  pre "/"  after every round *)
Theorem dotdots_cost m hh :
  N.of_nat m * (ps + 1) <= snd (parse_path_loop_c dbg CUrlParser STNotSpecial ps (dotdots m) P (nlen P) [] hh).
Proof.
  induction m as [|k IH]; [cbn [N.of_nat]; lia|].
  cbn [dotdots parse_path_loop_c].
  replace (is_tnl 46) with false by reflexivity.
  replace (is_tnl 47) with false by reflexivity.
  cbn [ctx_eqb negb st_is_special st_is_file andb].
  replace (46 =? 47) with false by reflexivity. replace (46 =? 92) with false by reflexivity.
  replace (46 =? 63) with false by reflexivity. replace (46 =? 35) with false by reflexivity.
  replace (47 =? 47) with true by reflexivity. cbn [orb andb].
  rewrite push_dotdot. rewrite <- app_assoc. rewrite (finish_dotdot_root hh).
  pose proof finish_dotdot_root_cost as Hc.
  destruct (parse_path_loop_c dbg CUrlParser STNotSpecial ps (dotdots k) P (nlen P) [] hh) as [o n].
  cbn [fst snd] in *. rewrite Nat2N.inj_succ. lia.
Qed.
End Root.

(* no linear bound a * (|serialization so far| + |input|) + b holds for the path state *)
Theorem path_cost_not_linear : forall a b : N, exists pre l dbg hh,
  usv_list l /\
  a * (nlen (pre ++ [47]) + nlen l) + b
  < snd (parse_path_loop_c dbg CUrlParser STNotSpecial (nlen pre) l (pre ++ [47]) (nlen (pre ++ [47])) [] hh).
Proof.
  intros a b. set (K := 4 * a + b + 1).
  exists (repeat 97 (N.to_nat K - 1) ++ [58]), (dotdots (N.to_nat K)), true, false.
  assert (no_byte 47 (repeat 97 (N.to_nat K - 1) ++ [58]) = true) as Hn.
  { unfold no_byte. rewrite forallb_app. apply andb_true_iff. split; [|reflexivity].
    induction (N.to_nat K - 1)%nat as [|j IHj]; [reflexivity|]. cbn [repeat forallb]. rewrite IHj. reflexivity. }
  split.
  - assert (forall j, usv_list (dotdots j)) as G.
    { induction j as [|j IHj]; [constructor|]. cbn [dotdots].
      repeat (constructor; [unfold is_usv; lia|]). exact IHj. }
    apply G.
  - pose proof (dotdots_cost _ true Hn (N.to_nat K) false) as H.
    match goal with |- _ < ?X => set (C := X) in * end.
    assert (nlen (repeat 97 (N.to_nat K - 1) ++ [58]) = K) as HL.
    { rewrite nlen_app. unfold nlen. rewrite repeat_length. cbn [length]. unfold K. lia. }
    assert (nlen (dotdots (N.to_nat K)) = 3 * K) as HD.
    { unfold nlen. assert (forall j, length (dotdots j) = (3 * j)%nat) as G.
      { induction j as [|j IHj]; [reflexivity|]. cbn [dotdots length]. rewrite IHj. lia. }
      rewrite G. lia. }
    rewrite nlen_app, HL, HD. change (nlen [47]) with 1. rewrite HL in H. rewrite N2Nat.id in H.
    eapply N.lt_le_trans; [|exact H]. unfold K. nia.
Qed.

(* ---------------------------------------------------------------- F-C04-6: extend on file: URLs *)
Definition s_file_root : list N := s_file_css ++ [47].                        (* "file:///" *)
Definition s_http_root : list N := s_http ++ s_css ++ [104; 47].              (* "http://h/" *)
Definition pushes_cost (st : scheme_type) (ps : N) (root : list N) (n : nat) : N :=
  snd (psm_extend_loop_c true st ps root (repeat [97] n)).

(* the path "a/" k times: what k pushes of "a" leave behind the root, with the '/' that the next push adds *)
Fixpoint body (k : nat) : list N := match k with O => [] | S j => 97 :: 47 :: body j end.
Lemma body_snoc k : body k ++ [97; 47] = body (S k).
Proof. induction k as [|k IH]; [reflexivity|]. cbn [body app]. rewrite IH. reflexivity. Qed.
Lemma body_len k : nlen (body k) = 2 * N.of_nat k.
Proof. induction k as [|k IH]; [reflexivity|]. cbn [body]. rewrite !nlen_cons, IH. lia. Qed.
Lemma body_no_wdl k : is_normalized_wdl (body k) = false.
Proof. destruct k as [|[|k]]; reflexivity. Qed.

Section Push.
Variables (st : scheme_type) (ps : N) (root : list N).
Hypothesis root_len : nlen root = ps + 1.

(* one push of "a" behind  root (a/)^k : six steps, and the fix-up of the result *)
Lemma push_a k :
  parse_path_c true CPathSegmentSetter st true ps (root ++ body k) [97]
  = (POk (file_path_fixup st ps (root ++ body k ++ [97]), true, []),
     6 + file_path_fixup_cost st ps (root ++ body k ++ [97])).
Proof.
  rewrite (app_assoc root). set (S0 := root ++ body k).
  unfold parse_path_c. cbn [parse_path_loop_c].
  change (is_tnl 97) with false. cbn [ctx_eqb negb andb]. change ((97 =? 63) || (97 =? 35)) with false. cbn [andb].
  assert (nskipn (ps + 1) S0 = body k) as -> by (unfold S0; rewrite <- root_len; apply nskipn_app_len).
  rewrite body_no_wdl, andb_false_r.
  unfold push_pending, push_encoded. cbn [rev app].
  replace (pe_display (path_set CPathSegmentSetter st) (utf8_encode [97])) with [97] by (destruct st; vm_compute; reflexivity).
  assert (slice_o (S0 ++ [97]) (nlen S0) (nlen (S0 ++ [97])) = Some [97]) as Hs.
  { pose proof (slice_mid S0 [97] []) as H. rewrite app_nil_r in H. rewrite nlen_app. exact H. }
  unfold finish_segment, finish_segment_cost. rewrite Hs. cbn [of_option pbind is_double_dot is_single_dot is_pct2e].
  change (is_wdl [97]) with false. rewrite andb_false_r.
  unfold flush_cost. rewrite nlen_app. change (nlen [97]) with 1. f_equal. lia.
Qed.

(* extend() adds the '/' in front of the next push *)
Lemma push_start k : let s := root ++ body k ++ [97] in
  (if (ps + 1 <? nlen s) || (nlen s =? ps) then s ++ [47] else s) = root ++ body (S k).
Proof.
  cbv zeta. rewrite !nlen_app, body_len, root_len. change (nlen [97]) with 1.
  replace (ps + 1 <? ps + 1 + (2 * N.of_nat k + 1)) with true by lia. cbn [orb].
  rewrite <- !app_assoc. cbn [app]. rewrite body_snoc. reflexivity.
Qed.
End Push.

(* the file fix-up leaves "file:///" (a/)^k "a" as it is, and copies the path: 4 k + 6 steps *)
Lemma file_fixup_a k :
  file_path_fixup STFile 7 (s_file_root ++ body k ++ [97]) = s_file_root ++ body k ++ [97]
  /\ file_path_fixup_cost STFile 7 (s_file_root ++ body k ++ [97]) = 4 * N.of_nat k + 6.
Proof.
  assert (E : s_file_root ++ body k ++ [97] = s_file_css ++ 47 :: body k ++ [97])
    by (unfold s_file_root; rewrite <- app_assoc; reflexivity).
  assert (D : drop_while is_slash (47 :: body k ++ [97]) = body k ++ [97]) by (destruct k; reflexivity).
  unfold file_path_fixup, file_path_fixup_cost. cbn [st_is_file]. rewrite !E. change 7 with (nlen s_file_css).
  rewrite nskipn_app_len, nfirstn_app_len, D. split; [reflexivity|].
  rewrite nlen_cons, nlen_app, body_len. change (nlen [97]) with 1. lia.
Qed.

(* n pushes of "a" onto file:/// (a/)^k: the j-th of them costs 4 (k + j) + 16 steps *)
Lemma pushes_file_from n : forall k s,
  (if (7 + 1 <? nlen s) || (nlen s =? 7) then s ++ [47] else s) = s_file_root ++ body k ->
  snd (psm_extend_loop_c true STFile 7 s (repeat [97] n))
  = 2 * N.of_nat n * N.of_nat n + 4 * N.of_nat k * N.of_nat n + 14 * N.of_nat n + 1.
Proof.
  induction n as [|n IH]; intros k s Hs; [cbn [repeat psm_extend_loop_c snd N.of_nat]; lia|].
  cbn [repeat psm_extend_loop_c]. change (psm_skips_c [97]) with (false, 2). cbv iota.
  rewrite Hs, (push_a STFile 7 s_file_root eq_refl k). destruct (file_fixup_a k) as [-> ->].
  specialize (IH (S k) _ (push_start 7 s_file_root eq_refl k)).
  destruct (psm_extend_loop_c true STFile 7 (s_file_root ++ body k ++ [97]) (repeat [97] n)) as [o m].
  cbn [snd] in *. rewrite IH, !Nat2N.inj_succ. lia.
Qed.

(* F-C04-6, exactly: n pushes on file:/// cost 2 n^2 + 14 n + 1 steps ... *)
Theorem pushes_file_cost n : pushes_cost STFile 7 s_file_root n = 2 * N.of_nat n * N.of_nat n + 14 * N.of_nat n + 1.
Proof. unfold pushes_cost. rewrite (pushes_file_from n 0 s_file_root eq_refl). cbn [N.of_nat]. lia. Qed.

(* ... and on http://h/, where the result of a push is not copied, 10 n + 1 *)
Lemma pushes_http_from n : forall k s,
  (if (8 + 1 <? nlen s) || (nlen s =? 8) then s ++ [47] else s) = s_http_root ++ body k ->
  snd (psm_extend_loop_c true STSpecialNotFile 8 s (repeat [97] n)) = 10 * N.of_nat n + 1.
Proof.
  induction n as [|n IH]; intros k s Hs; [reflexivity|].
  cbn [repeat psm_extend_loop_c]. change (psm_skips_c [97]) with (false, 2). cbv iota.
  rewrite Hs, (push_a STSpecialNotFile 8 s_http_root eq_refl k).
  unfold file_path_fixup, file_path_fixup_cost. cbn [st_is_file].
  specialize (IH (S k) _ (push_start 8 s_http_root eq_refl k)).
  destruct (psm_extend_loop_c true STSpecialNotFile 8 (s_http_root ++ body k ++ [97]) (repeat [97] n)) as [o m].
  cbn [snd] in *. rewrite IH, !Nat2N.inj_succ. lia.
Qed.

Theorem pushes_http_cost n : pushes_cost STSpecialNotFile 8 s_http_root n = 10 * N.of_nat n + 1.
Proof. exact (pushes_http_from n 0 s_http_root eq_refl). Qed.

Lemma pushes_results :
  fst (psm_extend_loop_c true STFile 7 s_file_root (repeat [97] 3)) = Some (s_file_root ++ [97; 47; 97; 47; 97])
  /\ fst (psm_extend_loop_c true STSpecialNotFile 8 s_http_root (repeat [97] 3)) = Some (s_http_root ++ [97; 47; 97; 47; 97]).
Proof. vm_compute. split; reflexivity. Qed.
