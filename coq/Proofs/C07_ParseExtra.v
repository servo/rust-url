(* Proofs/C07_ParseExtra.v - three facts about every record parse_url returns without a base for an input
   whose scheme is not "file", which wf_b does not contain and the ten API strings do not show:
     - the stored username contains no byte of the userinfo percent-encode set (clean T_USERINFO);
     - a record with "//" but without host has no credentials and no port, and its scheme is not special
       (Parser::parse_userinfo + the EmptyHost check of after_double_slash + parse_host_and_port);
   proved by following after_double_slash once more (as Proofs/C03_Reach.v ads_wf / C05_ParseArms.v ads_up do),
   this time keeping the userinfo text. *)
From Coq Require Import Bool.
From RU Require Import Base.Prelude Base.Utf8 Model.AsciiSet Gen.Tables Model.PercentEncoding
  Model.HostT Model.UrlRecord Model.Parser Model.Setters Model.WF
  Proofs.ListN Proofs.C03_WF Proofs.C06_List Proofs.C06_WFI Proofs.C06_Tail Proofs.C06_Steps
  Proofs.C02_Enc Proofs.C02_Parts Proofs.C02_Auth Proofs.C02_AuthParts Proofs.C02_AuthSp
  Proofs.C04_PathTotal Proofs.C04_Parse Proofs.C03_ReachParts Proofs.C03_Reach Proofs.C03_ReachFile
  Proofs.C05_Parser Proofs.C05_Frag Proofs.C05_PathClean Proofs.C05_ParseArms Proofs.C05_Sharp Proofs.C05_BaseOk
  Proofs.C07_Corr.

(* with_query_and_fragment passes the authority offsets through *)
Lemma wqf_fields2 ovr ctx st se ue hs he hi pt ps s rem u :
  with_query_and_fragment ovr ctx st se ue hs he hi pt ps s rem = POk u ->
  scheme_end u = se /\ username_end u = ue /\ host_start u = hs /\ hosti u = hi /\ port u = pt.
Proof.
  unfold with_query_and_fragment. intros H.
  pb H a Ha. destruct a as [s1 ps1]. pb H b Hb. destruct b as [[s2 qs] fs]. inversion H; subst u.
  repeat split; reflexivity.
Qed.

(* ... and, behind "://", only appends to the serialization *)
Lemma wqf_auth_ser ovr st se ue hs he hi pt ps s rem u :
  with_query_and_fragment ovr CUrlParser st se ue hs he hi pt ps s rem = POk u ->
  se + 3 <= ps -> starts_with s_css (nskipn se s) = true -> exists t, ser u = s ++ t.
Proof.
  unfold with_query_and_fragment. intros H Hps Hc.
  pb H a Ha. destruct a as [s1 ps1]. pb H b Hb. destruct b as [[s2 qs] fs]. inversion H; subst u. clear H.
  cbn [ser].
  assert (s1 = s) as ->.
  { replace (ps =? se + 1) with false in Ha by lia.
    destruct (ps =? se + 3) eqn:E3; cbn [andb] in Ha.
    - apply N.eqb_eq in E3. apply starts_with_split in Hc.
      replace (ps - se) with 3 in Ha by lia. rewrite Hc in Ha.
      change (nfirstn 3 (s_css ++ skipn (length s_css) (nskipn se s))) with [58; 47; 47] in Ha.
      change (list_eqb [58; 47; 47] [58; 47; 46]) with false in Ha. inversion Ha. reflexivity.
    - inversion Ha. reflexivity. }
  destruct (pqf_shape _ _ _ _ _ _ _ _ Hb) as (q & f & -> & _). eexists. reflexivity.
Qed.

Section Ads.
Variable dbg : bool.
Variable hp hpo : list N -> result host.
Variable hd : host -> list N.
Variable ovr : option (list N -> list N).
Hypothesis HW : HostWf hp hpo hd.

(* what after_double_slash leaves, with the userinfo text kept *)
Theorem ads_extra st se ser0 l u : st_is_file st = false -> nlen ser0 = se + 1 -> nnth ser0 se = Some 58 ->
  usv_list l ->
  after_double_slash dbg hp hpo hd ovr CUrlParser st se ser0 l = POk u ->
  scheme_end u = se
  /\ (exists ui rest, ui_ok ui /\ ser u = ((ser0 ++ [47; 47]) ++ ui_text ui) ++ rest
                      /\ username_end u = se + 3 + ui_ulen ui)
  /\ (has_host u = false -> username_end u = host_start u /\ port u = None /\ st_is_special st = false).
Proof using HW.
  intros Hnf L0 H58 Hu. unfold after_double_slash. cbv zeta. intros H.
  pb H a Ha. destruct a as [[ser1 ue] rm].
  assert (nlen (ser0 ++ [47; 47]) = se + 3) as LA by (rewrite nlen_app, L0; change (nlen [47; 47]) with 2; lia).
  destruct (parse_userinfo_out st (ser0 ++ [47; 47]) l ser1 ue rm Hu Ha) as (ui & Hui & -> & -> & Hrm).
  pb H hs Hhs. apply to_u32_eq in Hhs. subst hs.
  pb H b Hb. destruct b as [[[[ser2 he] hi] pt] rm2].
  destruct (phap_shape hp hpo hd HW _ _ _ _ _ _ _ _ _ Hnf Hb) as (h & -> & -> & -> & Hp & Hh).
  destruct (hi_eqb (hi_of_host h) HI_None && negb (nlen (ser0 ++ [47; 47]) =? nlen ((ser0 ++ [47; 47]) ++ ui_text ui))) eqn:Echk;
    [discriminate|].
  pb H ps Hps. apply to_u32_eq in Hps. subst ps.
  pb H c Hc. destruct c as [[s3 hh] rm3].
  destruct (parse_path_start_clean dbg CUrlParser st true _ rm2 s3 hh rm3 Hc) as (P & -> & _).
  destruct (wqf_fields2 _ _ _ _ _ _ _ _ _ _ _ _ _ H) as (F1 & F2 & F3 & F4 & F5).
  destruct (wqf_auth_ser _ _ _ _ _ _ _ _ _ _ _ _ H) as (t & Et).
  { rewrite !nlen_app, L0. change (nlen [47; 47]) with 2. lia. }
  { rewrite <- !app_assoc. rewrite (app_assoc ser0). apply css_after; assumption. }
  split; [exact F1|]. split.
  - exists ui. eexists. split; [exact Hui|]. split; [|rewrite F2, LA; reflexivity].
    rewrite Et. rewrite <- !app_assoc. reflexivity.
  - intros Hh0. unfold has_host in Hh0. rewrite F4 in Hh0.
    assert (hi_of_host h = HI_None) as Ehi by (destruct (hi_of_host h); try discriminate Hh0; reflexivity).
    rewrite Ehi in Echk. cbn [hi_eqb andb] in Echk. apply negb_false_iff, N.eqb_eq in Echk.
    rewrite F2, F3, F5. split; [|].
    + rewrite (nlen_app (ser0 ++ [47; 47])) in Echk. rewrite (nlen_app (ser0 ++ [47; 47])).
      assert (nlen (ui_text ui) = 0) as Z by lia.
      destruct ui as [|x|x p]; cbn [ui_text ui_ulen] in *; [reflexivity| |];
        rewrite ?nlen_app, ?nlen_cons, ?nlen_app in Z; change (nlen [64]) with 1 in Z; lia.
    + apply hi_none_empty in Ehi. subst h.
      destruct Hh as [(_ & _ & E3 & E4)|(Hne & _)]; [split; assumption|].
      destruct HW as (_ & _ & W3). rewrite W3 in Hne. contradiction.
Qed.

(* the username of such a record *)
Lemma ads_username st se ser0 l u un : st_is_file st = false -> nlen ser0 = se + 1 -> nnth ser0 se = Some 58 ->
  usv_list l -> wf_b u = true ->
  after_double_slash dbg hp hpo hd ovr CUrlParser st se ser0 l = POk u ->
  username dbg u = Some un -> clean T_USERINFO un = true.
Proof using HW.
  intros Hnf L0 H58 Hu W H Hun.
  destruct (ads_extra st se ser0 l u Hnf L0 H58 Hu H) as (E1 & (ui & rest & Hui & Es & E2) & _).
  assert (nlen (ser0 ++ [47; 47]) = se + 3) as LA by (rewrite nlen_app, L0; change (nlen [47; 47]) with 2; lia).
  assert (has_authority_b u = true) as Ha.
  { unfold has_authority_b. rewrite E1, Es, <- app_assoc. apply css_after; assumption. }
  rewrite (username_eval dbg u W) in Hun. injection Hun as Hun. subst un.
  cbn [pidx]. rewrite Ha, E1, E2. unfold piece. rewrite Es, <- LA.
  rewrite <- app_assoc, nskipn_app_exact.
  replace (nlen (ser0 ++ [47; 47]) + ui_ulen ui - nlen (ser0 ++ [47; 47])) with (ui_ulen ui) by lia.
  destruct ui as [|x|x p]; cbn [ui_text ui_ulen ui_ok] in *.
  - reflexivity.
  - rewrite <- app_assoc. rewrite nfirstn_app_exact. exact (proj1 Hui).
  - rewrite <- app_assoc. rewrite nfirstn_app_exact. exact (proj1 Hui).
Qed.

End Ads.

(* every no-base parse result of a scheme other than "file" *)
Definition input_is_file (input : list N) : bool :=
  match parse_scheme CUrlParser (input_new_trim_c0 input) with
  | Some (sch, _) => st_is_file (scheme_type_of sch)
  | None => false
  end.

Section Top.
Variable dbg : bool.
Variable hp hpo : list N -> result host.
Variable hd : host -> list N.
Variable ovr : option (list N -> list N).
Hypothesis HW : HostWf hp hpo hd.

Record model_extra (u : url) : Prop := mk_mx {
  mx_wf : wf_b u = true;
  mx_ht : C06_Suffix.host_text_ok u;
  mx_uclean : forall un, username dbg u = Some un -> clean T_USERINFO un = true;
  mx_nohost : has_host u = false -> has_authority_b u = true ->
              username_end u = host_start u /\ port u = None
              /\ st_is_special (scheme_type_of (b_scheme u)) = false
}.

Theorem parse_nobase_extra input u : usv_list input -> input_is_file input = false ->
  parse_url dbg hp hpo hd ovr None input = POk u -> model_extra u.
Proof using HW.
  intros Hu Hnf Hp.
  destruct (parse_url_wf_all dbg hp hpo hd ovr HW None input u I Hp) as [W HT].
  unfold parse_url in Hp. unfold input_is_file in Hnf.
  pose proof (usv_list_trim input Hu) as Ht.
  destruct (parse_scheme CUrlParser (input_new_trim_c0 input)) as [[sch rem]|] eqn:Es; [|discriminate Hp].
  pose proof (parse_scheme_rest _ _ _ _ Ht Es) as Hr.
  unfold parse_with_scheme in Hp. du32 (nlen sch) se E. cbn [pbind] in Hp. apply to_u32_eq in E. subst se.
  assert (nlen (sch ++ [58]) = nlen sch + 1) as L0 by (rewrite nlen_app; reflexivity).
  assert (nnth (sch ++ [58]) (nlen sch) = Some 58) as H58 by apply nnth_last.
  assert (forall st l, st_is_file st = false -> usv_list l -> st = scheme_type_of sch ->
            after_double_slash dbg hp hpo hd ovr CUrlParser st (nlen sch) (sch ++ [58]) l = POk u -> model_extra u) as Hads.
  { intros st l Hf Hl Est H.
    destruct (ads_extra dbg hp hpo hd ovr HW st (nlen sch) (sch ++ [58]) l u Hf L0 H58 Hl H) as (E1 & (ui & rest & _ & Eser & _) & E3).
    constructor; [exact W | exact HT | |].
    - intros un. exact (ads_username dbg hp hpo hd ovr HW st (nlen sch) (sch ++ [58]) l u un Hf L0 H58 Hl W H).
    - intros Hh _. destruct (E3 Hh) as (A & B & C). split; [exact A|]. split; [exact B|].
      unfold b_scheme. rewrite E1, Eser, <- !app_assoc, nfirstn_app_exact, <- Est. exact C. }
  destruct (scheme_type_of sch) eqn:Est.
  - discriminate Hnf.
  - destruct (inp_count_matching is_slash_or_bslash rem) as [slashes remaining] eqn:Ec.
    apply (Hads STSpecialNotFile remaining); [reflexivity | | reflexivity | exact Hp].
    exact (count_matching_usv _ _ _ _ Hr Ec).
  - unfold parse_non_special in Hp.
    destruct (inp_split_prefix_str s_ss rem) as [rm|] eqn:Ess.
    + apply (Hads STNotSpecial rm); [reflexivity | | reflexivity | exact Hp].
      exact (split_prefix_str_usv _ _ _ Hr Ess).
    + pb Hp ps Hps. apply to_u32_eq in Hps. subst ps. pb Hp a Ha. destruct a as [s1 remaining].
      destruct (wqf_fields2 _ _ _ _ _ _ _ _ _ _ _ _ _ Hp) as (F1 & F2 & F3 & F4 & F5).
      constructor; [exact W | exact HT | |].
      * intros un Hun.
        assert (un = []) as -> by (apply (noauth_username dbg u un W); [rewrite F1, F2, L0; lia | exact Hun]).
        reflexivity.
      * intros _ Ha'. exfalso.
        pose proof (af_ue (wf_auth_facts u W Ha')) as K. rewrite F1, F2, L0 in K. lia.
Qed.

(* the scheme of the record is the scheme parse_scheme has read *)
Theorem parse_nobase_scheme input sch rem u :
  parse_scheme CUrlParser (input_new_trim_c0 input) = Some (sch, rem) ->
  st_is_file (scheme_type_of sch) = false ->
  parse_url dbg hp hpo hd ovr None input = POk u -> b_scheme u = sch.
Proof.
  intros Es Hnf Hp. unfold parse_url in Hp. rewrite Es in Hp.
  unfold parse_with_scheme in Hp. du32 (nlen sch) se E. cbn [pbind] in Hp. apply to_u32_eq in E. subst se.
  assert (nlen (sch ++ [58]) = nlen sch + 1) as L0 by (rewrite nlen_app; reflexivity).
  assert (scheme_end u = nlen sch /\ nfirstn (nlen sch) (ser u) = nfirstn (nlen sch) (sch ++ [58])) as [A B].
  { destruct (scheme_type_of sch) eqn:Est.
    - discriminate Hnf.
    - destruct (inp_count_matching is_slash_or_bslash rem) as [slashes remaining].
      destruct (ads_bk dbg hp hpo hd ovr _ _ _ _ _ L0 Hp) as (A & B & _). split; assumption.
    - exact (pns_bk dbg hp hpo hd ovr _ _ _ _ _ L0 Hp). }
  unfold b_scheme. rewrite A, B. apply nfirstn_app_exact.
Qed.

End Top.
