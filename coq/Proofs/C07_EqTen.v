(* Proofs/C07_EqTen.v - the assignments through all ten setters that the one-step theorem covers: any value for the nine
   setters other than href; for href a value that fits and has a scheme other than "file" (href_ok). *)
From RU Require Import Base.Prelude Model.KnownC07 Spec.Whatwg Proofs.C07_EqNine.

Section Ten.
Variable shp : bool -> list N -> option spec_host.
Variable shs : spec_host -> list N.

(* the assignments covered: any value for pathname and for the eight setters other than href; for href a value that fits
   and whose scheme is not "file" (href_ok of Proofs/C07_EqParseAll.v) *)
Definition ten_ok (s : qsetter) (v : list N) : Prop := nine_ok shp shs s v \/ s = QPathname.

Fixpoint ten_ops (ops : list (qsetter * list N)) : Prop :=
  match ops with
  | [] => True
  | (s, v) :: r => ten_ok s v /\ usv_list v /\ ten_ops r
  end.

End Ten.
