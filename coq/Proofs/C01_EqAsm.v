(* Proofs/C01_EqAsm.v - the proved classes of the C01 equivalence assembled (beyond in_proved_class of
   Proofs/C01_EqClasses.v and in_proved_class2 of Proofs/C01_EqClasses2.v):
   in_proved_class3 = the six host-free classes, "scheme://authority" (non-special, no base), the special
   non-file schemes without base, and the three relative-reference classes against a non-special base.
   ONE base relation (good_base = `related` + spec_base_ok), which every successful result satisfies
   again (agree_good), so the theorem can be applied to its own results; ONE host hypothesis (host_hyp3:
   the two host functions of a side pair agree on the one string the class applies them to), discharged
   for the host model of Model/Host.v against the Standard's host parser / serializer
   (Spec/WhatwgHostParse.v) relative to the IDNA oracle only. *)
From RU Require Import Base.Prelude Base.Utf8 Gen.Tables Model.HostT Model.UrlRecord Model.Parser Model.Setters
  Model.Host Spec.Whatwg Spec.WhatwgHostParse Proofs.C02_Parts Proofs.C08_Input Proofs.C09_Host Proofs.C01_EqRun
  Proofs.C01_EqEnc Proofs.C01_EqOpaque Proofs.C01_EqRef Proofs.C01_EqEmpty Proofs.C01_EqClasses
  Proofs.C01_EqAuthSpec Proofs.C01_EqAuthModel Proofs.C01_EqClasses2 Proofs.C01_EqRel Proofs.C01_EqRelArms
  Proofs.C01_EqRelBase Proofs.C01_EqSpSpec Proofs.C01_EqSpPath Proofs.C01_EqSpModel Proofs.C01_EqSp
  Proofs.C01_EqSpHost Proofs.C01_EqAbs Proofs.C01_EqSpBase Proofs.C01_EqSpBare Proofs.C01_Override.

(* the base relation and the outcome relation *)
(* a model record and a record of the Standard that may serve as a base: `related` (wf_b, same ten API
   strings, same text in front of fragment / query, same scheme, same cannot-be-a-base, spec_valid) and
   spec_base_ok (scheme lower-case, no '/' inside a path segment of the Standard's record) *)
Definition good_base (dbg : bool) (shs : spec_host -> list N) (b : url) (sb : spec_url) : Prop :=
  related dbg shs b sb /\ spec_base_ok sb = true.

Definition base_rel3 (dbg : bool) (shs : spec_host -> list N) (b : option url) (sb : option spec_url) : Prop :=
  match b, sb with
  | None, None => True
  | Some x, Some y => good_base dbg shs x y
  | _, _ => False
  end.

(* the Standard succeeds: its record meets spec_base_ok, and the model answers Overflow with the
   Standard's href beyond u32::MAX, or succeeds with a related record (so: a good_base pair again);
   the Standard fails: so does the model *)
Definition agree_good (dbg : bool) (shs : spec_host -> list N) (m : pres url) (s : parse_outcome) : Prop :=
  match s with
  | BDone su => spec_base_ok su = true
                /\ ((m = PErr Overflow /\ U32_MAX_P < nlen (get_href shs su))
                    \/ exists u, m = POk u /\ related dbg shs u su)
  | BFailure _ => exists e, m = PErr e
  | BOutOfFuel => False
  end.

Lemma agree_good_intro dbg shs m s : agree_rel_strict dbg shs m s ->
  (forall su, s = BDone su -> spec_base_ok su = true) -> agree_good dbg shs m s.
Proof.
  intros A H. unfold agree_rel_strict, agree_good in *. destruct s as [su|uf|]; [|exact A | exact A].
  split; [exact (H su eq_refl) | exact A].
Qed.

Lemma agree_good_rel_strict dbg shs m s : agree_good dbg shs m s -> agree_rel_strict dbg shs m s.
Proof. unfold agree_rel_strict, agree_good. destruct s as [su|uf|]; [intros [_ A]; exact A | exact (fun A => A) | exact (fun A => A)]. Qed.

Lemma agree_rel_strict_strict dbg shs m s : agree_rel_strict dbg shs m s -> agree_strict dbg shs m s.
Proof.
  unfold agree_rel_strict, agree_strict. destruct s as [su|uf|]; [|exact (fun A => A) | exact (fun A => A)].
  intros [K|(u & E & R)]; [left; exact K|]. right. exists u. split; [exact E | exact (rel_api _ _ _ _ R)].
Qed.

(* the successful result is a good base again *)
Lemma agree_good_chain dbg shs m su u : agree_good dbg shs m (BDone su) -> m = POk u -> good_base dbg shs u su.
Proof.
  intros [Hb [[E _]|(u' & E & R)]] Hm; rewrite Hm in E; [discriminate E|]. inversion E; subst u'. split; assumption.
Qed.

(* class "no scheme, no base": failure on both sides *)
Definition in_class_noscheme_nobase (input : list N) : bool :=
  match spec_scheme (spec_clean input) with None => true | Some _ => false end.

Theorem class_noscheme_nobase dbg hp hpo hd ovr shp input : in_class_noscheme_nobase input = true ->
  (exists u, spec_basic_url_parse shp input None = BFailure u)
  /\ parse_url dbg hp hpo hd ovr None input = PErr RelativeUrlWithoutBase.
Proof.
  intros Hc. unfold in_class_noscheme_nobase in Hc.
  assert (spec_scheme (spec_clean input) = None) as Hs by (destruct (spec_scheme (spec_clean input)); [discriminate | reflexivity]).
  split.
  - eexists. apply spec_parse_of_runs. apply runs_no_scheme; [exact Hs|]. apply R_fail.
    rewrite (step_unfold shp (spec_clean input) None _ [] (spec_clean input)) by reflexivity. reflexivity.
  - rewrite spec_clean_is_ntnl_trim in Hs. unfold parse_url.
    pose proof (scheme_state_eq (input_new_trim_c0 input)) as K. rewrite Hs in K.
    destruct (parse_scheme CUrlParser (input_new_trim_c0 input)) as [[s r]|]; [contradiction | reflexivity].
Qed.

Definition in_proved_nobase3 (input : list N) : bool :=
  in_class_opaque input || in_class_pathonly input || in_class_authority input || in_class_special input
  || in_class_noscheme_nobase input.

(* a reference with a scheme of its own that makes both sides ignore the base (Proofs/C01_EqAbs.v: not
   file, and non-special or different from the scheme of the base; Proofs/C01_EqSpBase.v: the special scheme
   of the base followed by two slashes / backslashes), and that is in a no-base class *)
Definition in_class_abs_base (sb : spec_url) (input : list N) : bool :=
  match spec_scheme (spec_clean input) with
  | Some (sch, R) => (base_ignored (Some sb) sch || same_two_sl sb sch R) && in_proved_nobase3 input
  | None => false
  end.

(* scheme-less references against a special non-file base with a host (Proofs/C01_EqSpBase.v) *)
Definition in_class_relative_s (sb : spec_url) (input : list N) : bool :=
  in_class_rel_abs_s sb input || in_class_rel_path_s sb input
  || (scheme_canon (su_scheme sb) && in_class_rel_authority_s sb input)
  || in_class_same_abs_s sb input || in_class_same_path_s sb input || in_class_same_bare sb input.

Definition in_proved_class3 (sbase : option spec_url) (input : list N) : bool :=
  match sbase with
  | None => in_proved_nobase3 input
  | Some sb => in_class_fragment_only input || in_class_query_only sb input || in_class_opaque_base_fail sb input
               || in_class_empty_ref sb input || in_class_relative sb input || in_class_abs_base sb input
               || in_class_relative_s sb input
  end.

Lemma in_proved_class3_of2 sbase input : in_proved_class2 sbase input = true -> in_proved_class3 sbase input = true.
Proof.
  unfold in_proved_class2, in_proved_class3, in_proved_nobase3, in_proved_class. destruct sbase as [sb|].
  - rewrite orb_false_r. intros ->. reflexivity.
  - intros H. apply orb_true_iff in H. destruct H as [H|H]; [rewrite H; reflexivity | rewrite H; rewrite ?orb_true_r; reflexivity].
Qed.

(* the string a host parser is applied to in the class of the input, with the isOpaque flag the
   Standard's host parser gets there; None: the class never calls a host function *)
Definition nobase_host_query (input : list N) : option (bool * list N) :=
  if in_class_authority input then Some (true, class_host_text input)
  else if in_class_special input then Some (false, class_host_text_s input)
  else None.

Definition class_host_query (sbase : option spec_url) (input : list N) : option (bool * list N) :=
  match sbase with
  | None => nobase_host_query input
  | Some sb => if in_class_rel_authority sb input then Some (true, rel_host_text input)
               else if in_class_abs_base sb input then nobase_host_query input
               else if in_class_rel_authority_s sb input then Some (false, rel_host_text_s input)
               else None
  end.

(* the one host hypothesis: on that string the model's host function of that kind (Host::parse_opaque for
   isOpaque = true, Host::parse for false) and the Standard's host parser agree *)
Definition host_hyp3 (hp hpo : list N -> result host) (hd : host -> list N)
           (shp : bool -> list N -> option spec_host) (shs : spec_host -> list N)
           (sbase : option spec_url) (input : list N) : Prop :=
  match class_host_query sbase input with
  | Some (true, s) => host_agree hpo hd shp shs s
  | Some (false, s) => host_agree_sp hp hd shp shs s
  | None => True
  end.

(* the six host-free classes: related results, strict Overflow clause *)
Section Old.
Variable dbg : bool.
Variable hp hpo : list N -> result host.
Variable hd : host -> list N.
Variable shp : bool -> list N -> option spec_host.
Variable shs : spec_host -> list N.

Lemma agree_rel_to_strict m s :
  agree_rel dbg shs m s -> (forall su, m = PErr Overflow -> s = BDone su -> U32_MAX_P < nlen (get_href shs su)) ->
  agree_rel_strict dbg shs m s.
Proof.
  intros (su & -> & K) B. cbn [agree_rel_strict]. destruct K as [E|K]; [left; split; [exact E | exact (B su E eq_refl)] | right; exact K].
Qed.

Theorem old_classes_rel_strict input base sbase :
  usv_list input -> base_rel dbg shs base sbase -> in_proved_class sbase input = true ->
  agree_rel_strict dbg shs (parse_url dbg hp hpo hd None base input) (spec_basic_url_parse shp input sbase).
Proof.
  intros Hu Hb Hc.
  pose proof (fun su => class_overflow_bound dbg hp hpo hd shp shs input base sbase su Hu Hb Hc) as B.
  destruct base as [b|]; destruct sbase as [sb|]; cbn [base_rel] in Hb; try contradiction.
  - cbn [in_proved_class] in Hc. apply orb_true_iff in Hc. destruct Hc as [Hc|Hc];
      [apply orb_true_iff in Hc; destruct Hc as [Hc|Hc]; [apply orb_true_iff in Hc; destruct Hc as [Hc|Hc]|]|].
    + apply agree_rel_to_strict; [apply class_fragment_only; assumption | exact B].
    + apply agree_rel_to_strict; [apply class_query_only; assumption | exact B].
    + destruct (class_opaque_base_fail dbg hp hpo hd shp shs input b sb Hb Hc) as [[u ->] ->].
      cbn [agree_rel_strict]. eexists. reflexivity.
    + apply agree_rel_to_strict; [apply class_empty_ref; assumption | exact B].
  - cbn [in_proved_class] in Hc. apply orb_true_iff in Hc. destruct Hc as [Hc|Hc].
    + apply agree_rel_to_strict; [apply class_opaque_related; assumption | exact B].
    + apply agree_rel_to_strict; [apply class_pathonly; assumption | exact B].
Qed.

(* the Standard's record of these classes meets spec_base_ok when the base did *)
Theorem old_classes_result_ok input sbase su :
  usv_list input ->
  match sbase with Some sb => spec_valid sb /\ spec_base_ok sb = true | None => True end ->
  in_proved_class sbase input = true ->
  spec_basic_url_parse shp input sbase = BDone su -> spec_base_ok su = true.
Proof.
  intros Hu Hb Hc HS. destruct sbase as [sb|].
  - destruct Hb as [V Hok].
    cbn [in_proved_class] in Hc. apply orb_true_iff in Hc. destruct Hc as [Hc|Hc];
      [apply orb_true_iff in Hc; destruct Hc as [Hc|Hc]; [apply orb_true_iff in Hc; destruct Hc as [Hc|Hc]|]|].
    + unfold in_class_fragment_only in Hc.
      destruct (spec_clean input) as [|c f] eqn:Ec; [discriminate|]. cbn [starts_with_cp] in Hc.
      apply N.eqb_eq in Hc. subst c.
      rewrite (spec_fragment_only shp input sb f Ec V) in HS. inversion HS. rewrite base_ok_set_fragment. exact Hok.
    + unfold in_class_query_only in Hc. apply andb_true_iff in Hc. destruct Hc as [H1 H2].
      destruct (spec_clean input) as [|c q] eqn:Ec; [discriminate|]. cbn [starts_with_cp] in H2.
      apply N.eqb_eq in H2. subst c.
      assert (has_opaque_path sb = false) as Hop by (destruct (has_opaque_path sb); [discriminate | reflexivity]).
      rewrite (spec_query_only shp input sb q Ec V Hop) in HS. inversion HS. unfold ref_result.
      rewrite base_ok_set_fragment, base_ok_set_query. exact Hok.
    + exfalso. unfold in_class_opaque_base_fail in Hc.
      apply andb_true_iff in Hc. destruct Hc as [Hc H3]. apply andb_true_iff in Hc. destruct Hc as [H1 H2].
      assert (spec_scheme (spec_clean input) = None) as Hs by (destruct (spec_scheme (spec_clean input)); [discriminate | reflexivity]).
      apply negb_true_iff in H3.
      destruct (spec_opaque_base_fails shp input sb Hs H3 H1) as [uf K]. rewrite K in HS. discriminate HS.
    + unfold in_class_empty_ref in Hc. apply andb_true_iff in Hc. destruct Hc as [H1 H2].
      assert (has_opaque_path sb = false) as Hop by (destruct (has_opaque_path sb); [discriminate | reflexivity]).
      destruct (spec_clean input) eqn:Ec; [|discriminate].
      rewrite (spec_empty_ref dbg hp hpo shp input sb Ec V Hop) in HS. inversion HS. rewrite base_ok_set_fragment. exact Hok.
  - cbn [in_proved_class] in Hc. apply orb_true_iff in Hc. destruct Hc as [Hc|Hc].
    + unfold in_class_opaque in Hc. rewrite spec_clean_is_ntnl_trim in Hc.
      destruct (spec_scheme (ntnl (input_new_trim_c0 input))) as [[sch rest]|] eqn:Es; [|discriminate].
      apply andb_true_iff in Hc. destruct Hc as [H1 H2].
      destruct (spec_scheme_model _ _ _ Es) as (rem & Hs & <-).
      assert (is_special_scheme sch = false) as Hns by (destruct (is_special_scheme sch); [discriminate | reflexivity]).
      assert (starts_with_cp 47 (ntnl rem) = false) as H47 by (destruct (starts_with_cp 47 (ntnl rem)); [discriminate | reflexivity]).
      rewrite (spec_opaque shp input sch rem Hs (not_special_type sch Hns) (split_of_starts_with_cp rem H47)) in HS.
      inversion HS. unfold spec_base_ok, spec_opaque_url, Whatwg.path_segments. cbn [su_scheme su_path forallb].
      rewrite (parse_scheme_out _ _ _ Hs). reflexivity.
    + exact (pathonly_result_ok shp input su Hu Hc HS).
Qed.

End Old.

(* special schemes: the Standard's record meets spec_base_ok *)
Lemma sauth_tail_s_ok u X : scheme_canon (su_scheme u) = true -> spec_base_ok (sauth_tail_s u X) = true.
Proof.
  intros Hc. unfold sauth_tail_s. rewrite (base_ok_same _ _ (tail_url_same _ _)).
  unfold spec_base_ok, Whatwg.path_segments. cbn [su_scheme su_path set_path]. rewrite Hc.
  rewrite (spath_s_no_slash (path_text_s X) [] [] eq_refl eq_refl). reflexivity.
Qed.

Lemma sauth_port_g_ok u buf PR su : scheme_canon (su_scheme u) = true ->
  sauth_port_g u buf PR = Some su -> spec_base_ok su = true.
Proof.
  intros Hc. unfold sauth_port_g. cbv zeta.
  destruct (negb (starts_aes (after_digits PR))); [discriminate|].
  destruct (is_nil (buf ++ digits_of PR)).
  - intros H. inversion H. apply sauth_tail_s_ok. exact Hc.
  - destruct (65535 <? decimal_value (buf ++ digits_of PR)); [discriminate|].
    intros H. inversion H. apply sauth_tail_s_ok. exact Hc.
Qed.

Lemma sauth_host_g_ok shp u buf br t su : scheme_canon (su_scheme u) = true ->
  sauth_host_g shp u buf br t = Some su -> spec_base_ok su = true.
Proof.
  intros Hc. unfold sauth_host_g. cbv zeta.
  destruct (is_nil (buf ++ hss_host br t)); [discriminate|].
  destruct (host_parsing shp false (buf ++ hss_host br t)) as [sh|]; [|discriminate].
  destruct (port_split (hss_rest br t)) as [PR|].
  - apply sauth_port_g_ok. exact Hc.
  - intros H. inversion H. apply sauth_tail_s_ok. exact Hc.
Qed.

Theorem sauth_s_base_ok shp sch T su : scheme_canon sch = true -> sauth_s shp sch T = Some su -> spec_base_ok su = true.
Proof.
  intros Hc. unfold sauth_s. apply sauth_host_g_ok.
  destruct (fst (after_at_s T)) as [w|]; cbn [cred_of]; [rewrite ac_scheme|]; exact Hc.
Qed.

Theorem special_result_ok shp input su : in_class_special input = true ->
  spec_basic_url_parse shp input None = BDone su -> spec_base_ok su = true.
Proof.
  intros Hc HS. unfold in_class_special in Hc.
  destruct (spec_scheme (spec_clean input)) as [[sch R]|] eqn:Es; [|discriminate].
  apply andb_true_iff in Hc. destruct Hc as [Hc _]. apply andb_true_iff in Hc. destruct Hc as [Hspe Hnf].
  apply negb_true_iff in Hnf.
  pose proof (spec_special shp input sch R Es Hspe Hnf) as K.
  destruct (sauth_s shp sch (drop_sl R)) as [su'|] eqn:Esa.
  - rewrite K in HS. inversion HS; subst su'. exact (sauth_s_base_ok shp sch _ su (spec_scheme_canon input sch R Es) Esa).
  - destruct K as [uf K]. rewrite K in HS. discriminate HS.
Qed.

Section Asm.
Variable dbg : bool.
Variable hp hpo : list N -> result host.
Variable hd : host -> list N.
Variable shp : bool -> list N -> option spec_host.
Variable shs : spec_host -> list N.

Definition nobase_host_hyp (input : list N) : Prop :=
  match nobase_host_query input with
  | Some (true, s) => host_agree hpo hd shp shs s
  | Some (false, s) => host_agree_sp hp hd shp shs s
  | None => True
  end.

Theorem partial_nobase_good3 ovr input :
  usv_list input -> ovr = None \/ ovr = Some utf8_encode -> in_proved_nobase3 input = true -> nobase_host_hyp input ->
  agree_good dbg shs (parse_url dbg hp hpo hd ovr None input) (spec_basic_url_parse shp input None).
Proof.
  intros Hu Hovr Hc HH.
  assert (parse_url dbg hp hpo hd ovr None input = parse_url dbg hp hpo hd None None input) as ->
    by (destruct Hovr as [-> | ->]; [reflexivity | apply parse_url_utf8_override]).
  unfold in_proved_nobase3 in Hc.
  destruct (in_proved_class None input) eqn:E1.
  - apply agree_good_intro.
    + apply old_classes_rel_strict; [exact Hu | exact I | exact E1].
    + intros su HS. exact (old_classes_result_ok dbg hp hpo shp input None su Hu I E1 HS).
  - cbn [in_proved_class] in E1. rewrite E1 in Hc. cbn [orb] in Hc.
    unfold nobase_host_hyp, nobase_host_query in HH.
    destruct (in_class_authority input) eqn:Ea.
    + apply agree_good_intro.
      * exact (class_authority dbg hp hpo hd None shp shs input Hu Ea HH).
      * intros su HS. exact (authority_result_ok shp input su Ea HS).
    + cbn [orb] in Hc. destruct (in_class_special input) eqn:Es.
      * apply agree_good_intro.
        -- exact (class_special dbg hp hpo hd shp shs input Hu Es HH).
        -- intros su HS. exact (special_result_ok shp input su Es HS).
      * cbn [orb] in Hc.
        destruct (class_noscheme_nobase dbg hp hpo hd None shp input Hc) as [[uf ->] ->].
        cbn [agree_good]. eexists. reflexivity.
Qed.

Lemma agree_good_outcome_eq m s1 s2 : outcome_eq s2 s1 -> agree_good dbg shs m s1 -> agree_good dbg shs m s2.
Proof.
  unfold outcome_eq, agree_good. destruct s2 as [a|ua|]; destruct s1 as [b|ub|]; try contradiction.
  - intros ->. exact (fun H => H).
  - intros _ H. exact H.
Qed.

Theorem partial_equivalence_good3 input base sbase :
  usv_list input -> base_rel3 dbg shs base sbase -> in_proved_class3 sbase input = true ->
  host_hyp3 hp hpo hd shp shs sbase input ->
  agree_good dbg shs (parse_url dbg hp hpo hd None base input) (spec_basic_url_parse shp input sbase).
Proof.
  intros Hu Hb Hc HH.
  destruct base as [b|]; destruct sbase as [sb|]; cbn [base_rel3] in Hb; try contradiction.
  - (* a base *)
    destruct Hb as [R Hok].
    destruct (in_proved_class (Some sb) input) eqn:E1.
    + apply agree_good_intro.
      * apply old_classes_rel_strict; [exact Hu | exact R | exact E1].
      * intros su HS. apply (old_classes_result_ok dbg hp hpo shp input (Some sb) su Hu); [split; [exact (rel_valid _ _ _ _ R) | exact Hok] | exact E1 | exact HS].
    + cbn [in_proved_class3] in Hc. cbn [in_proved_class] in E1. rewrite E1 in Hc. cbn [orb] in Hc.
      clear E1. pose proof Hok as Hok0. apply andb_true_iff in Hok0. destruct Hok0 as [Hcan _].
      destruct (in_class_relative sb input) eqn:Hrel.
      * clear Hc. unfold in_class_relative in Hrel. apply orb_true_iff in Hrel.
        destruct Hrel as [Hrel|Hrel]; [apply orb_true_iff in Hrel; destruct Hrel as [Hrel|Hrel]|].
        -- destruct (class_rel_abs dbg hp hpo hd None shp shs input b sb Hu R Hcan Hrel) as (su & -> & Hbo & A).
           split; [exact Hbo | exact A].
        -- destruct (class_rel_path dbg hp hpo hd None shp shs input b sb Hu R Hok Hrel) as (su & -> & Hbo & A).
           split; [exact Hbo | exact A].
        -- unfold host_hyp3, class_host_query in HH. rewrite Hrel in HH.
           apply agree_good_intro.
           ++ exact (class_rel_authority dbg hp hpo hd None shp shs input b sb Hu R Hcan Hrel HH).
           ++ intros su HS. exact (rel_authority_result_ok shp input sb su Hcan Hrel HS).
      * cbn [orb] in Hc.
        assert (in_class_rel_authority sb input = false) as Era.
        { unfold in_class_relative in Hrel. apply orb_false_iff in Hrel. tauto. }
        destruct (in_class_abs_base sb input) eqn:Habs.
        -- (* the reference has a scheme of its own and the base is ignored *)
           unfold host_hyp3, class_host_query in HH. rewrite Era, Habs in HH.
           unfold in_class_abs_base in Habs.
           destruct (spec_scheme (spec_clean input)) as [[sch R0]|] eqn:Es; [|discriminate Habs].
           apply andb_true_iff in Habs. destruct Habs as [Hbi Hnb].
           pose proof (partial_nobase_good3 None input Hu (or_introl eq_refl) Hnb HH) as A0.
           apply orb_true_iff in Hbi. destruct Hbi as [Hbi|Hbi].
           ++ rewrite (model_base_ignored dbg hp hpo hd None b sb shs input sch R0 R Es Hbi).
              exact (agree_good_outcome_eq _ _ _ (spec_base_ignored shp (Some sb) input sch R0 Es Hbi) A0).
           ++ pose proof Hbi as Hbi0. unfold same_two_sl in Hbi0.
              apply andb_true_iff in Hbi0. destruct Hbi0 as [Hbi0 H2sl]. apply andb_true_iff in Hbi0. destruct Hbi0 as [Hbi0 Hnf0].
              apply andb_true_iff in Hbi0. destruct Hbi0 as [_ Hsp0]. apply negb_true_iff in Hnf0.
              rewrite (model_same_two_sl dbg hp hpo hd None b input sch R0 Es Hsp0 Hnf0 H2sl).
              exact (agree_good_outcome_eq _ _ _ (spec_same_two_sl shp sb input sch R0 Es Hbi) A0).
        -- (* special base *)
           cbn [orb] in Hc. unfold in_class_relative_s in Hc. apply orb_true_iff in Hc.
           destruct Hc as [Hc|Hc];
             [apply orb_true_iff in Hc; destruct Hc as [Hc|Hc];
              [apply orb_true_iff in Hc; destruct Hc as [Hc|Hc];
               [apply orb_true_iff in Hc; destruct Hc as [Hc|Hc]; [apply orb_true_iff in Hc; destruct Hc as [Hc|Hc]|]|]|]|].
           ++ destruct (class_rel_abs_s dbg hp hpo hd shp shs input b sb Hu R Hcan Hc) as (su & -> & Hbo & A).
              split; [exact Hbo | exact A].
           ++ destruct (class_rel_path_s dbg hp hpo hd shp shs input b sb Hu R Hok Hc) as (su & -> & Hbo & A).
              split; [exact Hbo | exact A].
           ++ apply andb_true_iff in Hc. destruct Hc as [_ Hc].
              unfold host_hyp3, class_host_query in HH. rewrite Era, Habs, Hc in HH.
              apply agree_good_intro.
              ** exact (class_rel_authority_s dbg hp hpo hd shp shs input b sb Hu R Hcan Hc HH).
              ** intros su HS. exact (rel_authority_s_result_ok shp input sb su Hcan Hc HS).
           ++ destruct (class_same_abs_s dbg hp hpo hd shp shs input b sb Hu R Hcan Hc) as (su & -> & Hbo & A).
              split; [exact Hbo | exact A].
           ++ destruct (class_same_path_s dbg hp hpo hd shp shs input b sb Hu R Hok Hc) as (su & -> & Hbo & A).
              split; [exact Hbo | exact A].
           ++ destruct (class_same_bare dbg hp hpo hd shp shs input b sb Hu R Hc) as (R0 & -> & A).
              split; [rewrite bare_result_base_ok; exact Hok | exact A].
  - (* no base *)
    exact (partial_nobase_good3 None input Hu (or_introl eq_refl) Hc HH).
Qed.

Theorem partial_equivalence_strict3 input base sbase :
  usv_list input -> base_rel3 dbg shs base sbase -> in_proved_class3 sbase input = true ->
  host_hyp3 hp hpo hd shp shs sbase input ->
  agree_strict dbg shs (parse_url dbg hp hpo hd None base input) (spec_basic_url_parse shp input sbase).
Proof.
  intros Hu Hb Hc HH. apply agree_rel_strict_strict, agree_good_rel_strict. apply partial_equivalence_good3; assumption.
Qed.

Theorem partial_equivalence3 input base sbase :
  usv_list input -> base_rel3 dbg shs base sbase -> in_proved_class3 sbase input = true ->
  host_hyp3 hp hpo hd shp shs sbase input ->
  agree dbg shs (parse_url dbg hp hpo hd None base input) (spec_basic_url_parse shp input sbase).
Proof. intros Hu Hb Hc HH. apply agree_strict_agree. apply partial_equivalence_strict3; assumption. Qed.

(* the same with a UTF-8 encoding override *)
Theorem partial_equivalence_good3_utf8 input base sbase :
  usv_list input -> base_rel3 dbg shs base sbase -> in_proved_class3 sbase input = true ->
  host_hyp3 hp hpo hd shp shs sbase input ->
  agree_good dbg shs (parse_url dbg hp hpo hd (Some utf8_encode) base input) (spec_basic_url_parse shp input sbase).
Proof. intros Hu Hb Hc HH. rewrite parse_url_utf8_override. apply partial_equivalence_good3; assumption. Qed.

End Asm.

(* the host texts are pieces of the input *)
Lemma hs_host_in br t x : In x (hs_host br t) -> In x t.
Proof.
  revert br. induction t as [|c r IH]; intros br H; [exact H|]. cbn [hs_host] in H.
  destruct (hs_stop br c); [destruct H|]. destruct H as [H|H]; [left; exact H | right; exact (IH _ H)].
Qed.

Lemma hss_host_in br t x : In x (hss_host br t) -> In x t.
Proof.
  revert br. induction t as [|c r IH]; intros br H; [exact H|]. cbn [hss_host] in H.
  destruct (hss_stop br c); [destruct H|]. destruct H as [H|H]; [left; exact H | right; exact (IH _ H)].
Qed.

Lemma after_at_in T x : In x (snd (after_at T)) -> In x T.
Proof.
  unfold after_at. destruct (last_at (a_part T)) as [[w h]|] eqn:E; cbn [snd]; [|exact (fun H => H)].
  intros H. rewrite <- (a_part_rest T). rewrite (last_at_split _ _ _ E).
  apply in_app_or in H. apply in_or_app. destruct H as [H|H]; [left | right; exact H].
  apply in_or_app. right. right. exact H.
Qed.

Lemma after_at_s_in T x : In x (snd (after_at_s T)) -> In x T.
Proof.
  unfold after_at_s. destruct (last_at (as_part T)) as [[w h]|] eqn:E; cbn [snd]; [|exact (fun H => H)].
  intros H. rewrite <- (as_part_rest T). rewrite (last_at_split _ _ _ E).
  apply in_app_or in H. apply in_or_app. destruct H as [H|H]; [left | right; exact H].
  apply in_or_app. right. right. exact H.
Qed.

Lemma drop_sl_in t x : In x (drop_sl t) -> In x t.
Proof. intros H. rewrite <- (take_drop_sl t). apply in_or_app. right. exact H. Qed.

Lemma scheme_scan_suffix t : forall buf sch R, scheme_scan buf t = Some (sch, R) -> exists pre, t = pre ++ R.
Proof.
  induction t as [|c r IH]; intros buf sch R H; [discriminate H|]. cbn [scheme_scan] in H.
  destruct (is_scheme_cp c).
  - destruct (IH _ _ _ H) as [pre E]. exists (c :: pre). rewrite E at 1. reflexivity.
  - destruct (c =? 58); [|discriminate H]. inversion H; subst. exists [c]. reflexivity.
Qed.

Lemma spec_scheme_suffix t sch R : spec_scheme t = Some (sch, R) -> exists pre, t = pre ++ R.
Proof.
  unfold spec_scheme. destruct t as [|c r]; [discriminate|]. destruct (is_alpha c); [|discriminate].
  apply scheme_scan_suffix.
Qed.

Lemma usv_spec_clean input : usv_list input -> usv_list (spec_clean input).
Proof.
  intros Hu. rewrite spec_clean_is_ntnl_trim. unfold ntnl, usv_list.
  apply Forall_forall. intros x Hx. apply filter_In in Hx. destruct Hx as [Hx _].
  pose proof (usv_trim input Hu) as Ht. unfold usv_list in Ht. rewrite Forall_forall in Ht. exact (Ht x Hx).
Qed.

Lemma usv_of_in (a b : list N) : (forall x, In x a -> In x b) -> usv_list b -> usv_list a.
Proof. unfold usv_list. intros H Hb. rewrite Forall_forall in *. intros x Hx. exact (Hb x (H x Hx)). Qed.

Lemma nobase_host_query_usv input o s : usv_list input ->
  nobase_host_query input = Some (o, s) -> usv_list s.
Proof.
  intros Hu H. pose proof (usv_spec_clean input Hu) as Hc. unfold nobase_host_query in H.
  destruct (in_class_authority input).
  - inversion H; subst o s. unfold class_host_text.
    destruct (spec_scheme (spec_clean input)) as [[sch R]|] eqn:Es; [|constructor].
    destruct (spec_scheme_suffix _ _ _ Es) as [pre E]. rewrite E in Hc. apply usv_app in Hc. destruct Hc as [_ Hc].
    destruct R as [|c1 [|c2 T]]; try constructor.
    apply (usv_of_in _ T); [|apply usv_cons in Hc; destruct Hc as [_ Hc]; apply usv_cons in Hc; tauto].
    intros x Hx. unfold auth_host_text in Hx. exact (after_at_in T x (hs_host_in _ _ x Hx)).
  - destruct (in_class_special input); [|discriminate H]. inversion H; subst o s. unfold class_host_text_s.
    destruct (spec_scheme (spec_clean input)) as [[sch R]|] eqn:Es; [|constructor].
    destruct (spec_scheme_suffix _ _ _ Es) as [pre E]. rewrite E in Hc. apply usv_app in Hc. destruct Hc as [_ Hc].
    apply (usv_of_in _ R); [|exact Hc].
    intros x Hx. unfold sp_host_text in Hx. exact (drop_sl_in R x (after_at_s_in _ x (hss_host_in _ _ x Hx))).
Qed.

Lemma class_host_query_usv sbase input o s : usv_list input ->
  class_host_query sbase input = Some (o, s) -> usv_list s.
Proof.
  intros Hu H. unfold class_host_query in H.
  destruct sbase as [sb|]; [|exact (nobase_host_query_usv input o s Hu H)].
  destruct (in_class_rel_authority sb input).
  - pose proof (usv_spec_clean input Hu) as Hc. inversion H; subst o s.
    unfold rel_host_text. destruct (spec_clean input) as [|c1 [|c2 T]]; try constructor.
    apply (usv_of_in _ T); [|apply usv_cons in Hc; destruct Hc as [_ Hc]; apply usv_cons in Hc; tauto].
    intros x Hx. unfold auth_host_text in Hx. exact (after_at_in T x (hs_host_in _ _ x Hx)).
  - destruct (in_class_abs_base sb input); [exact (nobase_host_query_usv input o s Hu H)|].
    destruct (in_class_rel_authority_s sb input); [|discriminate H].
    pose proof (usv_spec_clean input Hu) as Hc. inversion H; subst o s.
    unfold rel_host_text_s. destruct (spec_clean input) as [|c1 [|c2 T]]; try constructor.
    apply (usv_of_in _ T); [|apply usv_cons in Hc; destruct Hc as [_ Hc]; apply usv_cons in Hc; tauto].
    intros x Hx. unfold sp_host_text in Hx. exact (drop_sl_in T x (after_at_s_in _ x (hss_host_in _ _ x Hx))).
Qed.

(* the host hypothesis for the host model and the Standard's host parser *)
(* Host::parse / Host::parse_opaque / Display of Model/Host.v against spec_host_parser / spec_host_serializer
   of Spec/WhatwgHostParse.v, the same domain-to-ASCII oracle on both sides: host_hyp3 holds on every
   scalar-value input as soon as the oracle's outputs are ASCII outside the deny list (first clause of
   IdnaOK) *)
Theorem host_hyp3_model idna : (forall bs d, idna bs = Some d -> Forall dom_char_ok d) ->
  forall sbase input, usv_list input ->
  host_hyp3 (host_parse idna) host_parse_opaque host_display (spec_host_parser idna) spec_host_serializer sbase input.
Proof.
  intros Hout sbase input Hu. unfold host_hyp3.
  destruct (class_host_query sbase input) as [[o s]|] eqn:E; [|exact I].
  pose proof (class_host_query_usv sbase input o s Hu E) as Hs.
  destruct o; [exact (host_agree_real_all idna s Hs) | exact (host_agree_special idna Hout s Hs)].
Qed.

(* C01_statement restricted to in_proved_class3 for the parser model with the host model plugged in,
   against the Standard's parser with the Standard's host parser: relative to IdnaOK idna only *)
Theorem partial_model dbg idna : IdnaOK idna -> forall input base sbase,
  usv_list input -> base_rel3 dbg spec_host_serializer base sbase -> in_proved_class3 sbase input = true ->
  agree_good dbg spec_host_serializer
    (parse_url dbg (host_parse idna) host_parse_opaque host_display None base input)
    (spec_basic_url_parse (spec_host_parser idna) input sbase).
Proof.
  intros HI input base sbase Hu Hb Hc. apply partial_equivalence_good3; [exact Hu | exact Hb | exact Hc|].
  apply host_hyp3_model; [exact (idna_out idna HI) | exact Hu].
Qed.

Theorem partial_model_utf8 dbg idna : IdnaOK idna -> forall input base sbase,
  usv_list input -> base_rel3 dbg spec_host_serializer base sbase -> in_proved_class3 sbase input = true ->
  agree_good dbg spec_host_serializer
    (parse_url dbg (host_parse idna) host_parse_opaque host_display (Some utf8_encode) base input)
    (spec_basic_url_parse (spec_host_parser idna) input sbase).
Proof. intros HI input base sbase Hu Hb Hc. rewrite parse_url_utf8_override. apply partial_model; assumption. Qed.

(* IdnaOK is satisfiable (for the non-vacuity examples): the identity on ASCII strings without denied
   characters *)
Definition ex_clean_char (c : N) : bool := (c <? 128) && negb (memb c T_HOST_IDNA_DENIED).
Definition ex_idna_clean (bs : list N) : option (list N) := if forallb ex_clean_char bs then Some bs else None.

Lemma ex_digit_dot_clean_sweep : all_below 128 (fun c => negb (is_digit c || (c =? 46)) || ex_clean_char c) = true.
Proof. vm_compute. reflexivity. Qed.

Example ex_idna_clean_ok : IdnaOK ex_idna_clean.
Proof.
  constructor.
  - intros bs d H. unfold ex_idna_clean in H. destruct (forallb ex_clean_char bs) eqn:E; inversion H; subst.
    apply Forall_forall. intros c Hc. rewrite forallb_forall in E. apply E in Hc.
    unfold ex_clean_char in Hc. unfold dom_char_ok. apply andb_true_iff in Hc. destruct Hc as [H1 H2].
    split; [lia|]. destruct (memb c T_HOST_IDNA_DENIED); [discriminate|reflexivity].
  - intros bs d H. unfold ex_idna_clean in *. destruct (forallb ex_clean_char bs) eqn:E; inversion H; subst. now rewrite E.
  - intros a Ha. unfold ex_idna_clean. destruct (ipv4_display_digits a Ha) as (Hd & _).
    replace (forallb ex_clean_char (ipv4_display a)) with true; [reflexivity|]. symmetry.
    apply forallb_forall. intros c Hc. rewrite Forall_forall in Hd. specialize (Hd c Hc).
    assert (c < 128) as L by (destruct Hd as [Hd| ->]; [unfold is_digit in Hd|]; lia).
    pose proof (all_below_spec 128 _ ex_digit_dot_clean_sweep c L) as S. cbv beta in S.
    destruct Hd as [Hd| ->]; [rewrite Hd in S; exact S|exact S].
Qed.
