(* Proofs/C03_HostiKeep.v - the mutators that do not set a host never touch the stored host kind:
   hosti u' = hosti u for set_fragment, set_query, set_path, set_port, set_password, set_username, set_scheme,
   path_segments_mut sessions and the quirks setters built on them.  Purely syntactic: every result record is built
   from the receiver with set_ser / set_query_start / set_fragment_start or mkUrl ... (hosti u) ... . *)
From RU Require Import Base.Prelude Base.Utf8 Model.AsciiSet Gen.Tables Model.PercentEncoding
  Model.HostT Model.UrlRecord Model.Parser Model.Setters.
Open Scope N_scope.
Open Scope list_scope.

(* one layer of an option computation: a bind, an if, a match *)
Ltac ob H :=
  first
  [ match type of H with bindo ?e _ = Some _ =>
      let E := fresh "E" in destruct e eqn:E; cbn [bindo] in H; [|discriminate H] end
  | match type of H with (if ?c then _ else _) = Some _ => destruct c end
  | match type of H with (match ?e with _ => _ end) = Some _ => destruct e end ].
Ltac obs H := repeat (ob H); try discriminate H.
Ltac fin H := inversion H; subst; reflexivity.

Section Keep.
Variable dbg : bool.

Lemma strip_hosti u u' : strip_trailing_spaces_from_opaque_path u = Some u' -> hosti u' = hosti u.
Proof. unfold strip_trailing_spaces_from_opaque_path. intros H. obs H; fin H. Qed.

Lemma set_fragment_hosti u f u' : set_fragment dbg u f = Some u' -> hosti u' = hosti u.
Proof.
  unfold set_fragment. intros H. ob H. destruct f as [input|].
  - fin H.
  - apply strip_hosti in H. exact H.
Qed.

Lemma take_fragment_hosti u u1 f : take_fragment dbg u = Some (u1, f) -> hosti u1 = hosti u.
Proof. unfold take_fragment. intros H. obs H; fin H. Qed.

Lemma restore_fragment_hosti u f u' : restore_already_parsed_fragment u f = Some u' -> hosti u' = hosti u.
Proof. unfold restore_already_parsed_fragment. intros H. obs H; fin H. Qed.

Lemma set_query_hosti u q u' : set_query dbg u q = Some u' -> hosti u' = hosti u.
Proof.
  unfold set_query. intros H.
  destruct (take_fragment dbg u) as [[u1 frag]|] eqn:E1; cbn [bindo] in H; [|discriminate H].
  match type of H with bindo ?e _ = _ => destruct e as [u2|] eqn:E2 end; cbn [bindo] in H; [|discriminate H].
  match type of H with bindo ?e _ = _ => destruct e as [u3|] eqn:E3 end; cbn [bindo] in H; [|discriminate H].
  rewrite (restore_fragment_hosti _ _ _ H). rewrite <- (take_fragment_hosti _ _ _ E1).
  assert (hosti u2 = hosti u1) as A2 by (obs E2; fin E2).
  rewrite <- A2. clear H E1 E2 A2.
  destruct q as [input|].
  - ob E3. destruct (parse_query None CSetter s (scheme_end u2) (ser u2 ++ [63]) (input_new_trim_tnl input)) as [s1 x]. fin E3.
  - destruct frag; [fin E3 | exact (strip_hosti _ _ E3)].
Qed.

Lemma take_after_path_hosti u u1 a : take_after_path u = Some (u1, a) -> hosti u1 = hosti u.
Proof. unfold take_after_path. intros H. obs H; fin H. Qed.

Lemma restore_after_path_hosti u o a u' : restore_after_path dbg u o a = Some u' -> hosti u' = hosti u.
Proof. unfold restore_after_path. cbv zeta. intros H. obs H; fin H. Qed.

Lemma set_path_hosti u p u' : set_path dbg u p = Some u' -> hosti u' = hosti u.
Proof.
  unfold set_path. intros H.
  destruct (take_after_path u) as [[u1 after_path]|] eqn:E1; cbn [bindo] in H; [|discriminate H]. cbv zeta in H.
  ob H. ob H. ob H. rewrite (restore_after_path_hosti _ _ _ _ H). exact (take_after_path_hosti _ _ _ E1).
Qed.

Lemma set_port_internal_hosti u p u' : set_port_internal dbg u p = Some u' -> hosti u' = hosti u.
Proof. unfold set_port_internal. cbv zeta. intros H. obs H; fin H. Qed.

Lemma set_port_hosti u p u' st : set_port dbg u p = Some (u', st) -> hosti u' = hosti u.
Proof.
  unfold set_port. intros H. ob H. ob H; [fin H|]. ob H. cbv zeta in H.
  match type of H with bindo ?e _ = _ => destruct e as [u1|] eqn:Ex end; cbn [bindo] in H; [|discriminate H].
  inversion H; subst. exact (set_port_internal_hosti _ _ _ Ex).
Qed.

Lemma q_set_port_hosti u v u' st : q_set_port dbg u v = Some (u', st) -> hosti u' = hosti u.
Proof.
  unfold q_set_port. intros H. ob H. ob H; [fin H|]. ob H.
  destruct (parse_port CSetter (default_port l) (input_new_no_trim v)) as [[p r]|e|]; [|fin H|discriminate H].
  match type of H with bindo ?e _ = _ => destruct e as [u1|] eqn:Ex end; cbn [bindo] in H; [|discriminate H].
  inversion H; subst. exact (set_port_internal_hosti _ _ _ Ex).
Qed.

Lemma set_password_hosti u pw u' st : set_password dbg u pw = Some (u', st) -> hosti u' = hosti u.
Proof. unfold set_password. cbv zeta. intros H. obs H; fin H. Qed.

Lemma set_username_hosti u un u' st : set_username dbg u un = Some (u', st) -> hosti u' = hosti u.
Proof.
  unfold set_username. cbv zeta. intros H. ob H. ob H; [fin H|]. ob H. ob H. ob H; [fin H|]. ob H.
  obs H; fin H.
Qed.

Lemma set_scheme_hosti u s u' st : set_scheme dbg u s = Some (u', st) -> hosti u' = hosti u.
Proof.
  unfold set_scheme. intros H.
  destruct (parse_scheme CSetter (input_new_no_trim s)) as [[new rem]|]; [|fin H]. cbv zeta in H.
  ob H. ob H. ob H; [fin H|]. ob H; [fin H|].
  do 7 (ob H).
  match type of H with bindo ?e _ = _ => destruct e as [[u1 st1]|] eqn:Ex end; cbn [bindo] in H; [|discriminate H].
  inversion H; subst. cbn [fst]. rewrite (set_port_hosti _ _ _ _ Ex). reflexivity.
Qed.

Lemma psm_new_hosti u p : psm_new dbg u = Some p -> hosti (psm_url p) = hosti u.
Proof.
  unfold psm_new. intros H.
  destruct (take_after_path u) as [[u1 after_path]|] eqn:E1; cbn [bindo] in H; [|discriminate H]. cbv zeta in H.
  ob H. ob H. inversion H; subst. cbn [psm_url]. exact (take_after_path_hosti _ _ _ E1).
Qed.

Lemma psm_with_hosti p s : hosti (psm_url (psm_with p s)) = hosti (psm_url p).
Proof. reflexivity. Qed.

Lemma psm_apply_hosti p o p' : psm_apply dbg p o = Some p' -> hosti (psm_url p') = hosti (psm_url p).
Proof.
  destruct o; cbn [psm_apply]; intros H.
  - fin H.
  - inversion H; subst. unfold psm_pop_if_empty. cbv zeta.
    destruct (nlen (ser (psm_url p)) <=? after_first_slash p); [reflexivity|].
    destruct (ends_with_byte 47 (nskipn (after_first_slash p) (ser (psm_url p)))); reflexivity.
  - inversion H; subst. unfold psm_pop. cbv zeta.
    destruct (nlen (ser (psm_url p)) <=? after_first_slash p); reflexivity.
  - unfold psm_push, psm_extend in H. ob H. ob H. fin H.
  - unfold psm_extend in H. ob H. ob H. fin H.
Qed.

Lemma psm_run_hosti ops : forall p p', psm_run dbg p ops = Some p' -> hosti (psm_url p') = hosti (psm_url p).
Proof.
  induction ops as [|o r IH]; intros p p' H; cbn [psm_run] in H.
  - fin H.
  - destruct (psm_apply dbg p o) as [p1|] eqn:E1; cbn [bindo] in H; [|discriminate H].
    rewrite (IH _ _ H). exact (psm_apply_hosti _ _ _ E1).
Qed.

Lemma path_segments_session_hosti u ops u' st : path_segments_session dbg u ops = Some (u', st) -> hosti u' = hosti u.
Proof.
  unfold path_segments_session, path_segments_mut. intros H.
  destruct (cannot_be_a_base u) as [[|]|]; cbn [bindo] in H; [fin H | | discriminate H].
  destruct (psm_new dbg u) as [p|] eqn:E0; cbn [bindo] in H; [|discriminate H].
  destruct (psm_run dbg p ops) as [p'|] eqn:E1; cbn [bindo] in H; [|discriminate H].
  destruct (psm_close dbg p') as [u1|] eqn:E2; cbn [bindo] in H; [|discriminate H].
  inversion H; subst. unfold psm_close in E2. rewrite (restore_after_path_hosti _ _ _ _ E2).
  rewrite (psm_run_hosti _ _ _ E1). exact (psm_new_hosti _ _ E0).
Qed.

Lemma q_set_pathname_hosti u v u' : q_set_pathname dbg u v = Some u' -> hosti u' = hosti u.
Proof.
  unfold q_set_pathname. intros H. ob H. ob H; [fin H|]. ob H.
  repeat match type of H with (if ?c then _ else _) = _ => destruct c end; exact (set_path_hosti _ _ _ H).
Qed.

End Keep.
