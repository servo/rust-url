(* Proofs/C06_PathMore.v - the path editors on the two remaining authority-less layouts:
   (1) Url::set_path on an opaque-path URL, (2) set_path / path_segments_mut on a URL that carries the
   "/." marker.  In both the result is the record with_path builds; it satisfies the invariant exactly
   when the stored layout still matches the new text: no leading "//" without marker (F-C02-8), a
   leading "//" with marker (F-C03-5).  On an opaque path the new text never starts with '/': since
   rust-url commit 0cfc9d8 (F-C06-6) set_path tests for the leading '/' on the TAB / LF / CR-free input. *)
From RU Require Import Base.Prelude Base.Utf8 Base.Utf8Facts Model.AsciiSet Gen.Tables Model.PercentEncoding
  Model.HostT Model.UrlRecord Model.Parser Model.Setters Model.WF
  Proofs.C14_Set Proofs.C14_Enc Proofs.C14_Views
  Proofs.ListN Proofs.C03_WF Proofs.C05_Enc Proofs.C06_List Proofs.C06_WFI Proofs.C06_Tail Proofs.C06_Steps Proofs.C06_FragQuery
  Proofs.C06_Suffix Proofs.C06_Front Proofs.C06_Port Proofs.C06_HostNone Proofs.C06_PathParser Proofs.C06_Path
  Proofs.C06_Segments Proofs.C06_PathNoAuth.

Lemma wg_2slash u P : wf_b u = true -> has_authority_b u = false ->
  path_starts_with_2slash (with_path u P) = starts_with s_ss P.
Proof. intros W _. exact (with_path_2slash u P W). Qed.

Definition path_result (dbg : bool) (u u' : url) (P : list N) : Prop :=
  wf_b u' = true /\ host_text_ok u' /\ same_front dbg u u'
  /\ query dbg u' = query dbg u /\ fragment dbg u' = fragment dbg u /\ path u' = Some P.

(* no marker (path_start = scheme_end + 1: '/'-led path or opaque path) *)
Lemma plain_result dbg u P : wf_b u = true -> has_authority_b u = false -> path_start u = scheme_end u + 1 ->
  forallb no_qh P = true ->
  (path_starts_with_2slash (with_path u P) = false -> path_result dbg u (with_path u P) P)
  /\ (path_starts_with_2slash (with_path u P) = true -> wf_b (with_path u P) = false).
Proof.
  intros W Ha E HP1. rewrite (with_path_2slash u P W). split; intros Hss.
  - apply with_path_noauth; try assumption; [rewrite (na_plain u P W E); exact Hss | lia].
  - destruct (wf_b (with_path u P)) eqn:W'; [|reflexivity]. exfalso.
    assert (has_authority_b (with_path u P) = true) as Ha' by (rewrite (na_plain u P W E); exact Hss).
    pose proof (af_ue (wf_auth_facts _ W' Ha')) as A.
    change (scheme_end (with_path u P)) with (scheme_end u) in A. change (username_end (with_path u P)) with (username_end u) in A.
    rewrite (nf_ue (wf_noauth_facts u W Ha)) in A. lia.
Qed.

(* marker (path_start = scheme_end + 3) *)
Lemma marker_result dbg u P : wf_b u = true -> has_authority_b u = false -> path_start u = scheme_end u + 3 ->
  forallb no_qh P = true ->
  (path_starts_with_2slash (with_path u P) = true -> path_result dbg u (with_path u P) P)
  /\ (path_starts_with_2slash (with_path u P) = false -> wf_b (with_path u P) = false).
Proof.
  intros W Ha E HP1. pose proof (na_marker u P W Ha E) as Ha'. rewrite (with_path_2slash u P W). split; intros Hss.
  - apply with_path_noauth; try assumption. intros _. exact Hss.
  - destruct (wf_b (with_path u P)) eqn:W'; [|reflexivity]. exfalso.
    destruct (nf_ps (wf_noauth_facts _ W' Ha')) as [X|(_ & _ & _ & X)].
    + change (path_start (with_path u P)) with (path_start u) in X. change (scheme_end (with_path u P)) with (scheme_end u) in X. lia.
    + fold (path_starts_with_2slash (with_path u P)) in X. rewrite (with_path_2slash u P W) in X. congruence.
Qed.

(* (1) Url::set_path on an opaque path *)
Lemma no_qh_utf8_1 c : no_qh c = true -> forallb no_qh (utf8_encode1 c) = true.
Proof.
  intros H. unfold utf8_encode1.
  destruct (c <? 128); [cbn [forallb]; rewrite H; reflexivity|].
  destruct (c <? 2048); [|destruct (c <? 65536)]; cbn [forallb]; unfold no_qh; lia.
Qed.

Lemma pe_display_no_qh S xs : forallb no_qh xs = true -> forallb no_qh (pe_display S xs) = true.
Proof.
  intros H. rewrite forallb_forall in *. intros c Hc.
  pose proof (pe_display_out S xs) as F. rewrite Forall_forall in F. destruct (F c Hc) as [[Hi _]|[->|Hx]].
  - apply H. exact Hi.
  - reflexivity.
  - unfold is_hexu, is_digit in Hx. unfold no_qh. lia.
Qed.

(* the first byte of the encoding of one scalar value other than '/' is not '/' *)
Lemma enc_head_not47 S c : is_usv c -> c <> 47 ->
  exists x t, pe_display S (utf8_encode [c]) = x :: t /\ x <> 47.
Proof.
  intros Hu Hc. rewrite pe_display_is_encode by (apply utf8_encode_bytes; constructor; [exact Hu | constructor]).
  unfold utf8_encode. cbn [flat_map]. rewrite app_nil_r.
  assert (exists b bs, utf8_encode1 c = b :: bs /\ b <> 47) as (b & bs & E & Hb).
  { unfold utf8_encode1. destruct (c <? 128) eqn:E1; [exists c, []; split; [reflexivity | exact Hc]|].
    destruct (c <? 2048); [|destruct (c <? 65536)]; eexists; eexists; (split; [reflexivity|]); lia. }
  rewrite E, encode_cons. unfold enc1. destruct (should_encode S b).
  - unfold enc_byte_spec. cbn [app]. eexists. eexists. split; [reflexivity | lia].
  - cbn [app]. eexists. eexists. split; [reflexivity | exact Hb].
Qed.

Lemma split47_tnl c r : is_tnl c = true -> inp_split_prefix_char 47 (c :: r) = inp_split_prefix_char 47 r.
Proof. intros H. unfold inp_split_prefix_char, inp_next. cbn [drop_while]. rewrite H. reflexivity. Qed.

Lemma split47_cons c r : is_tnl c = false -> inp_split_prefix_char 47 (c :: r) = if c =? 47 then Some r else None.
Proof. intros H. unfold inp_split_prefix_char, inp_next. cbn [drop_while]. rewrite H. reflexivity. Qed.

(* what the opaque-path state writes in the setter context: nothing stops it, a text without
   '?' / '#' gives an output without them, and a text whose first character (TAB / LF / CR apart) is not
   '/' gives an output that does not start with '/' *)
Lemma cbb_setter_out p : forall s, exists A, fst (parse_cannot_be_a_base_path CSetter s p) = s ++ A
  /\ (forallb no_qh p = true -> forallb no_qh A = true)
  /\ (usv_list p -> inp_split_prefix_char 47 p = None -> forall t, A = 47 :: t -> False).
Proof.
  induction p as [|c r IH]; intros s; cbn [parse_cannot_be_a_base_path].
  - exists []. split; [symmetry; apply app_nil_r|]. split; [reflexivity | intros _ _ t; discriminate].
  - destruct (is_tnl c) eqn:Et.
    + destruct (IH s) as (A & E & HA & HB). exists A. split; [exact E|]. split.
      * cbn [forallb]. intros H. apply andb_true_iff in H. apply HA, H.
      * intros Hu Hn. rewrite (split47_tnl c r Et) in Hn. apply HB; [inversion Hu; assumption | exact Hn].
    + cbn [ctx_eqb]. rewrite andb_false_r. unfold push_encoded.
      destruct (IH (s ++ pe_display T_CONTROLS (utf8_encode [c]))) as (A & E & HA & _).
      exists (pe_display T_CONTROLS (utf8_encode [c]) ++ A). split; [rewrite E; symmetry; apply app_assoc|]. split.
      * cbn [forallb]. intros H. apply andb_true_iff in H. destruct H as [H1 H2].
        apply forallb_app_iff. split; [|apply HA; exact H2].
        apply pe_display_no_qh. unfold utf8_encode. cbn [flat_map]. rewrite app_nil_r. apply no_qh_utf8_1. exact H1.
      * intros Hu Hn t Ht. rewrite (split47_cons c r Et) in Hn.
        destruct (c =? 47) eqn:E47; [discriminate|]. apply N.eqb_neq in E47.
        destruct (enc_head_not47 T_CONTROLS c (Forall_inv Hu) E47) as (x & t0 & Ex & Hx).
        rewrite Ex in Ht. cbn [app] in Ht. inversion Ht. congruence.
Qed.

Lemma set_path_opaque_eval dbg u p u' : wf_b u = true -> is_opaque_b u = true -> usv_list p ->
  forallb no_qh p = true -> set_path dbg u p = Some u' ->
  exists P, u' = with_path u P /\ forallb no_qh P = true /\ (forall t, P = 47 :: t -> False).
Proof.
  intros W Hop Hu Hp H. unfold is_opaque_b in Hop. apply negb_true_iff in Hop.
  destruct (opaque_path_start u W Hop) as [Ha Eps].
  unfold set_path in H. rewrite (take_after_path_eval u W) in H. cbn [bindo] in H.
  destruct (wf_ps_le_path_end u W) as [B5 B6]. destruct (wf_scheme_facts u W) as (Hse & Hc & Hlt).
  set (pe := path_end u) in *. set (ps := path_start u) in *.
  assert (nlen (nfirstn pe (ser u)) = pe) as Lpe by (apply nlen_nfirstn; exact B6).
  assert (cannot_be_a_base (set_ser u (nfirstn pe (ser u))) = Some true) as Ecbb.
  { unfold cannot_be_a_base, u_slice_from. cbn [ser set_ser scheme_end]. rewrite slice_from_o_some by lia. cbn [bindo].
    do 2 f_equal. apply negb_true_iff.
    destruct (nskipn (scheme_end u + 1) (nfirstn pe (ser u))) as [|c r] eqn:En; [reflexivity|].
    cbn [starts_with]. rewrite andb_true_r.
    assert (nnth (nfirstn pe (ser u)) (scheme_end u + 1) = Some c) as Hn.
    { rewrite <- (N.add_0_r (scheme_end u + 1)), <- nnth_nskipn, En. reflexivity. }
    pose proof (nnth_lt _ _ _ Hn) as Hlt2. rewrite Lpe in Hlt2. rewrite nnth_nfirstn in Hn by lia.
    unfold byte_eqb in Hop. rewrite Hn in Hop. rewrite N.eqb_sym. exact Hop. }
  rewrite Ecbb in H. cbn [bindo] in H.
  assert (u_scheme_type (set_ser u (nfirstn pe (ser u))) = Some (scheme_type_of (nfirstn (scheme_end u) (ser u)))) as Est.
  { unfold u_scheme_type, scheme, u_slice_to. cbn [ser set_ser scheme_end]. rewrite slice_to_o_some by lia. cbn [bindo].
    rewrite nfirstn_nfirstn by lia. reflexivity. }
  rewrite Est in H. cbn [bindo] in H.
  cbn [ser set_ser path_start] in H. unfold truncate in H. fold ps in H.
  rewrite nfirstn_nfirstn in H by lia.
  set (s0 := nfirstn ps (ser u)) in *.
  assert (nlen s0 = ps) as Ls0 by (apply nlen_nfirstn; lia).
  unfold input_new_no_trim in H.
  (* the text written *)
  assert (exists P, (let '(s, p') := match inp_split_prefix_char 47 p with
                                     | Some r => (s0 ++ [37; 50; 70], r) | None => (s0, p) end in
                     Some (fst (parse_cannot_be_a_base_path CSetter s p'))) = Some (s0 ++ P)
                    /\ forallb no_qh P = true /\ (forall t, P = 47 :: t -> False)) as (P & EP & HP & HH).
  { destruct (inp_split_prefix_char 47 p) as [r|] eqn:E47.
    - assert (forallb no_qh r = true) as Hr.
      { clear - Hp E47. induction p as [|c p' IH]; [discriminate|]. cbn [forallb] in Hp. apply andb_true_iff in Hp.
        destruct Hp as [_ Hp]. destruct (is_tnl c) eqn:Et.
        - rewrite (split47_tnl c p' Et) in E47. exact (IH Hp E47).
        - rewrite (split47_cons c p' Et) in E47. destruct (c =? 47); inversion E47; subst. exact Hp. }
      destruct (cbb_setter_out r (s0 ++ [37; 50; 70])) as (A & E & HA & _). exists ([37; 50; 70] ++ A).
      rewrite E, <- app_assoc. split; [reflexivity|]. split; [|intros t Ht; discriminate].
      apply forallb_app_iff. split; [reflexivity | apply HA; exact Hr].
    - destruct (cbb_setter_out p s0) as (A & E & HA & HB). exists A. rewrite E.
      split; [reflexivity|]. split; [apply HA; exact Hp | exact (HB Hu E47)]. }
  rewrite EP in H. cbn [bindo] in H.
  unfold restore_after_path in H. cbn [ser set_ser query_start fragment_start] in H. rewrite Lpe in H.
  assert (match query_start u with Some i => pe <= i | None => True end) as Gq.
  { unfold pe, path_end. destruct (query_start u); [lia | exact I]. }
  assert (match fragment_start u with Some i => pe <= i | None => True end) as Gf.
  { pose proof (qf_qf (wf_qf_facts u W)) as Q3. unfold pe, path_end.
    destruct (query_start u), (fragment_start u); try exact I; lia. }
  rewrite !adjust_opt_ok in H by assumption. cbn [bindo] in H.
  exists P. split; [|split; [exact HP | exact HH]].
  inversion H. unfold with_path. fold pe ps. rewrite nlen_app, Ls0. rewrite <- app_assoc. reflexivity.
Qed.

(* Url::set_path on an opaque path, for an argument (a &str) without '?' and '#' (those are F-C02-3):
   invariant, frame, the path stays opaque.  (Before rust-url commit 0cfc9d8, F-C06-6, an argument such as TAB "//x"
   produced a result starting with "//".) *)
Theorem set_path_opaque_ok dbg u p u' : wf_b u = true -> is_opaque_b u = true -> usv_list p ->
  forallb no_qh p = true -> set_path dbg u p = Some u' ->
  wf_b u' = true /\ host_text_ok u' /\ same_front dbg u u' /\ query dbg u' = query dbg u
  /\ fragment dbg u' = fragment dbg u /\ is_opaque_b u' = true
  /\ exists P, path u' = Some P /\ forallb no_qh P = true.
Proof.
  intros W Hop Hu Hp H. destruct (set_path_opaque_eval dbg u p u' W Hop Hu Hp H) as (P & -> & HP & HH).
  pose proof Hop as Hop2. unfold is_opaque_b in Hop2. apply negb_true_iff in Hop2.
  destruct (opaque_path_start u W Hop2) as [Ha Eps].
  destruct (plain_result dbg u P W Ha Eps HP) as [R1 _].
  assert (path_starts_with_2slash (with_path u P) = false) as Hss.
  { rewrite (wg_2slash u P W Ha). destruct P as [|c r0]; [reflexivity|].
    unfold s_ss. cbn [starts_with]. destruct (47 =? c) eqn:E; [|reflexivity]. apply N.eqb_eq in E. subst c.
    destruct (HH _ eq_refl). }
  destruct (R1 Hss) as (A & B & C & D & E & F). splits; try assumption; [|exists P; split; assumption].
  unfold is_opaque_b. apply negb_true_iff. change (scheme_end (with_path u P)) with (scheme_end u).
  rewrite <- Eps. unfold byte_eqb. rewrite <- (N.add_0_r (path_start u)).
  rewrite <- nnth_nskipn, (with_path_skip u P W).
  destruct P as [|c r0].
  - cbn [app]. rewrite nnth_nskipn, N.add_0_r.
    destruct (nnth (ser u) (path_end u)) as [x|] eqn:En; [|reflexivity]. apply N.eqb_neq. intros ->.
    apply (end_byte_not _ _ 47 (path_end_byte u W)); [lia | lia | exact En].
  - cbn. apply N.eqb_neq. intros ->. destruct (HH _ eq_refl).
Qed.

(* the witness of F-C06-6: since rust-url commit 0cfc9d8 TAB "//x" on "a:b" gives "a:%2F/x" *)
Lemma set_path_opaque_tab_fixed :
  wf_b sp_w2 = true /\ is_opaque_b sp_w2 = true
  /\ exists u', set_path true sp_w2 [9; 47; 47; 120] = Some u' /\ ser u' = [97; 58; 37; 50; 70; 47; 120]
      /\ wf_b u' = true /\ is_opaque_b u' = true.
Proof.
  split; [vm_compute; reflexivity|]. split; [vm_compute; reflexivity|].
  eexists. split; [vm_compute; reflexivity|]. repeat split; vm_compute; reflexivity.
Qed.

(* (2) the editors on a URL with the "/." marker *)
Definition marker_path (u : url) : Prop := has_authority_b u = false /\ path_start u = scheme_end u + 3.

Lemma marker_heads u : wf_b u = true -> marker_path u ->
  byte_eqb (ser u) (scheme_end u + 1) 47 = true /\ byte_eqb (ser u) (path_start u) 47 = true /\ auth_end_ok u.
Proof.
  intros W [Ha E]. destruct (nf_ps (wf_noauth_facts u W Ha)) as [X|(_ & B1 & B2 & B3)]; [lia|].
  split; [exact B1|]. split.
  - apply starts_with_split in B3. apply byte_eqb_true_iff.
    rewrite <- (N.add_0_r (path_start u)), <- nnth_nskipn, B3. reflexivity.
  - unfold auth_end_ok. intros _ _. unfold ends_with_byte.
    assert (nlen (ser u) >= scheme_end u + 3) as L by (pose proof (nf_len (wf_noauth_facts u W Ha)); lia).
    apply byte_eqb_nnth in B2.
    pose proof (piece_app (ser u) 0 (scheme_end u + 2) (path_start u) ltac:(lia) ltac:(lia)) as Ep.
    rewrite !N.sub_0_r, nskipn_0 in Ep. replace (path_start u - (scheme_end u + 2)) with 1 in Ep by lia.
    rewrite (piece_one _ _ _ B2) in Ep. rewrite <- Ep. rewrite rev_app_distr. reflexivity.
Qed.

Theorem set_path_marker_ok dbg u p u' : wf_b u = true -> marker_path u -> usv_list p ->
  set_path dbg u p = Some u' ->
  (path_starts_with_2slash u' = true ->
     wf_b u' = true /\ host_text_ok u' /\ same_front dbg u u' /\ query dbg u' = query dbg u
     /\ fragment dbg u' = fragment dbg u /\ exists P, path u' = Some P /\ new_path_ok P)
  /\ (path_starts_with_2slash u' = false -> wf_b u' = false).
Proof.
  intros W M Hp H. destruct (marker_heads u W M) as (Hsl & Hhd & Hx). destruct M as [Ha E].
  destruct (set_path_eval dbg u p u' W Hsl Hp Hx H) as (P & hh & rem & -> & HP & _).
  destruct (marker_result dbg u P W Ha E (proj1 HP)) as [R1 R2]. split; [|exact R2].
  intros Hss. destruct (R1 Hss) as (A & B & C & D & F & G). splits; try assumption. exists P. split; assumption.
Qed.

Theorem path_segments_session_marker_ok dbg u ops u' : wf_b u = true -> marker_path u ->
  Forall psm_op_usv ops -> path_segments_session dbg u ops = Some (u', SOk) ->
  (path_starts_with_2slash u' = true ->
     wf_b u' = true /\ host_text_ok u' /\ same_front dbg u u' /\ query dbg u' = query dbg u
     /\ fragment dbg u' = fragment dbg u /\ exists P, path u' = Some P /\ new_path_ok P)
  /\ (path_starts_with_2slash u' = false -> wf_b u' = false).
Proof.
  intros W M Hops H. destruct (marker_heads u W M) as (Hsl & Hhd & Hx). destruct M as [Ha E].
  destruct (path_segments_session_eval dbg u ops u' W Hsl (or_intror Hhd) Hops H) as (P & -> & HP).
  destruct (marker_result dbg u P W Ha E (proj1 HP)) as [R1 R2]. split; [|exact R2].
  intros Hss. destruct (R1 Hss) as (A & B & C & D & F & G). splits; try assumption. exists P. split; assumption.
Qed.

(* the excluded half is inhabited: "a:/.//p" (marker, path "//p"): set_path("/q") gives "a:/./q" and
   path_segments_mut().clear() gives "a:/./" - the marker stays in front of a path that needs none *)
Definition mk_w : url := mkUrl [97; 58; 47; 46; 47; 47; 112] 1 2 2 2 HI_None None 4 None None.
Lemma marker_refuted :
  wf_b mk_w = true /\ marker_path mk_w
  /\ (exists u', set_path true mk_w [47; 113] = Some u' /\ ser u' = [97; 58; 47; 46; 47; 113] /\ wf_b u' = false)
  /\ (exists u', path_segments_session true mk_w [PClear] = Some (u', SOk) /\ ser u' = [97; 58; 47; 46; 47] /\ wf_b u' = false)
  /\ (exists u', set_path true mk_w [47; 47; 113] = Some u' /\ ser u' = [97; 58; 47; 46; 47; 47; 113] /\ wf_b u' = true).
Proof.
  split; [vm_compute; reflexivity|]. split; [split; vm_compute; reflexivity|].
  split; [|split]; eexists; (split; [vm_compute; reflexivity|]); split; vm_compute; reflexivity.
Qed.

(* the same exactness for the '/'-led layout without marker (F-C02-8) *)
Theorem set_path_noauth_exact dbg u p u' : wf_b u = true -> noauth_slash_path u -> usv_list p ->
  set_path dbg u p = Some u' -> path_starts_with_2slash u' = true -> wf_b u' = false.
Proof.
  intros W NA Hp H Hss. pose proof NA as (Ha & Hsl & Hnm).
  assert (auth_end_ok u) as Hx.
  { unfold auth_end_ok. intros _ _. rewrite Hnm. apply noauth_front_end. exact W. }
  destruct (set_path_eval dbg u p u' W Hsl Hp Hx H) as (P & hh & rem & -> & HP & _).
  exact (proj2 (plain_result dbg u P W Ha Hnm (proj1 HP)) Hss).
Qed.

Theorem path_segments_session_noauth_exact dbg u ops u' : wf_b u = true -> noauth_slash_path u ->
  Forall psm_op_usv ops -> path_segments_session dbg u ops = Some (u', SOk) ->
  path_starts_with_2slash u' = true -> wf_b u' = false.
Proof.
  intros W NA Hops H Hss. pose proof NA as (Ha & Hsl & Hnm).
  assert (path_end u = path_start u \/ byte_eqb (ser u) (path_start u) 47 = true) as Hhead
    by (right; rewrite Hnm; exact Hsl).
  destruct (path_segments_session_eval dbg u ops u' W Hsl Hhead Hops H) as (P & -> & HP).
  exact (proj2 (plain_result dbg u P W Ha Hnm (proj1 HP)) Hss).
Qed.

(* the four layouts are exhaustive *)
Lemma path_layouts u : wf_b u = true ->
  has_authority_b u = true \/ noauth_slash_path u \/ is_opaque_b u = true \/ marker_path u.
Proof.
  intros W. destruct (has_authority_b u) eqn:Ha; [left; reflexivity|]. right.
  destruct (nf_ps (wf_noauth_facts u W Ha)) as [E|(E & _)].
  - destruct (byte_eqb (ser u) (scheme_end u + 1) 47) eqn:Hb.
    + left. split; [exact Ha|]. split; [exact Hb | exact E].
    + right. left. unfold is_opaque_b. rewrite Hb. reflexivity.
  - right. right. split; [exact Ha | exact E].
Qed.
