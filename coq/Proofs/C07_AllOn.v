(* Proofs/C07_AllOn.v - C07_statement's clauses under the host hypothesis restricted to the strings that are ever handed
   to the host functions: host_fns_ok_on (Proofs/C07_HostOn.v: agreement on scalar-value strings, non-empty for
   Host::parse) in place of host_fns_ok (agreement on every string), with HostWf and the empty host's empty text
   (together host_parse_ok_on; host_parse_ok of Proofs/C07_EqParseAll.v implies it).  The parse clause: from
   C01_statement_all (Proofs/C01_EqCover.v statement_all: outside Known_C01 the two parsers agree and a successful pair
   is a full_base pair = `related` + spec_base_ok + base_shape_ok), which needs the host hypothesis on ONE string, a
   sub-string of the input (class_host_query_usv), through the bridge related => corrS of Proofs/C07_EqRel.v, whose side
   conditions are
     model side : Proofs/C07_ParseExtra.v (clean username; no host => no credentials / port / not special);
     Standard's : Proofs/C07_SpecInv.v (port <= 65535), Proofs/C07_SpecInvU.v (the host is a host-parser result on a
                  scalar-value buffer, non-empty when not opaque, so its text is not empty).
   The href clause from it; hostname / host / pathname and the six others from Proofs/C07_HostOn.v.  Instance
   (statement_model): the REAL host functions - Host::parse with a domain-to-ASCII oracle, Host::parse_opaque, Display
   against the Standard's host parser with the same oracle and the Standard's host serializer. *)
From Coq Require Import Bool.
From RU Require Import Base.Prelude Base.Utf8 Model.AsciiSet Gen.Tables Model.PercentEncoding
  Model.HostT Model.Host Model.UrlRecord Model.Parser Model.Setters Model.WF Model.KnownC01 Model.KnownC07
  Spec.Whatwg Spec.WhatwgHost Spec.WhatwgHostParse
  Proofs.ListN Proofs.C03_WF Proofs.C06_Suffix Proofs.C06_Host Proofs.C08_Input
  Proofs.C02_Enc Proofs.C01_Tables Proofs.C01_EqRun Proofs.C01_EqEnc Proofs.C01_EqApi Proofs.C01_EqRef
  Proofs.C01_EqAuthModel Proofs.C01_EqSpModel Proofs.C01_EqRelArms Proofs.C01_EqSpBase
  Proofs.C01_EqAsm Proofs.C01_EqShape Proofs.C01_KnownExact Proofs.C01_EqCover
  Proofs.C03_ReachParts Proofs.C09_Host Proofs.C09_InstWf Proofs.C09_RealC01
  Proofs.C07_Defs Proofs.C07_Histories Proofs.C07_Corr Proofs.C07_SpecProto Proofs.C07_EqProto Proofs.C07_EqSix
  Proofs.C07_EqFive Proofs.C07_EqHostname Proofs.C07_EqSeven
  Proofs.C07_EqRel Proofs.C07_SpecInv Proofs.C07_ParseExtra Proofs.C07_EqParseAll Proofs.C07_HostReal
  Proofs.C07_SpecInvU Proofs.C07_HostOn Proofs.C07_EqNine Proofs.C07_EqTen.

Definition host_parse_ok_on (hp ho : list N -> result host) (hd : host -> list N)
           (shp : bool -> list N -> option spec_host) (shs : spec_host -> list N) : Prop :=
  host_fns_ok_on hp ho hd shp shs /\ HostWf hp ho hd /\ shs SEmpty = [].

Lemma host_parse_ok_on_of_all hp ho hd shp shs : host_parse_ok hp ho hd shp shs -> host_parse_ok_on hp ho hd shp shs.
Proof. intros (A & B & C). split; [exact (host_fns_ok_on_of_all hp ho hd shp shs A) | split; assumption]. Qed.

(* what C01's statements give for an input the model parses: the Standard parses it too, to a full_base pair *)
Lemma parsed_full_base dbg hp ho hd shp shs input u :
  agree_good dbg shs (parse_url dbg hp ho hd None None input) (spec_basic_url_parse shp input None)
  /\ (forall su u, spec_basic_url_parse shp input None = BDone su -> parse_url dbg hp ho hd None None input = POk u ->
         full_base dbg shs u su) ->
  parse_url dbg hp ho hd None None input = POk u ->
  exists su, spec_basic_url_parse shp input None = BDone su /\ full_base dbg shs u su.
Proof.
  intros [A Hfull] Hp. rewrite Hp in A. unfold agree_good in A.
  destruct (spec_basic_url_parse shp input None) as [su|uf|]; [|destruct A as [e A]; discriminate A | contradiction].
  exists su. split; [reflexivity | exact (Hfull su u eq_refl Hp)].
Qed.

(* href: the parser without a base
   From C01's agreement on the value and the parse clause: both parsers fail (the URL stays on both sides) or both
   succeed with related records; href_fits excludes the Overflow arm. *)
Lemma href_outside_known u v : known_c07 u QHref v = 0 -> known_c01 None v = 0.
Proof. cbn [known_c07]. destruct (known_c01 None v =? 0) eqn:E; [intros _; apply N.eqb_eq; exact E | lia]. Qed.

Lemma href_of_agreement dbg hp ho hd shp shs u su v : corrS dbg shs u su -> href_fits shp shs v ->
  agree_good dbg shs (parse_url dbg hp ho hd None None v) (spec_basic_url_parse shp v None) ->
  (forall u', parse_url dbg hp ho hd None None v = POk u' ->
     exists su', spec_basic_url_parse shp v None = BDone su' /\ corrS dbg shs u' su') ->
  exists u' su', model_set dbg hp ho hd QHref u v = Some u' /\ spec_step shp QHref su v = Some su'
    /\ corrS dbg shs u' su'.
Proof.
  intros C Hfit A Hparse. unfold href_fits in Hfit. unfold spec_step. cbn [setter_of_q spec_set model_set].
  unfold agree_good in A. destruct (spec_basic_url_parse shp v None) as [su'|uf|].
  - destruct A as [_ [[Ho Hl]|(u' & Hp & _)]]; [lia|].
    rewrite Hp. exists u', su'. split; [reflexivity|]. split; [reflexivity|].
    destruct (Hparse u' Hp) as (su2 & Hs2 & C2). injection Hs2 as <-. exact C2.
  - destruct A as [e A]. rewrite A. exists u, su. split; [reflexivity|]. split; [reflexivity | exact C].
  - contradiction.
Qed.

Section AllOn.
Variable dbg : bool.
Variable hp ho : list N -> result host.
Variable hd : host -> list N.
Variable shp : bool -> list N -> option spec_host.
Variable shs : spec_host -> list N.
Hypothesis HP : host_parse_ok_on hp ho hd shp shs.

Lemma host_agree_on s : usv_list s -> host_agree ho hd shp shs s.
Proof.
  intros Hs. destruct HP as [[_ H1] _]. specialize (H1 s Hs). unfold host_fn_ok_at in H1. unfold host_agree.
  destruct (ho s) as [h|e]; destruct (host_parsing shp true s) as [sh|]; try exact H1; try contradiction.
  destruct H1 as (A & B & C & D). split; [exact A|]. split; [exact (disp_not_colon hd h B)|]. split; [exact D|].
  rewrite (disp_nil_iff hd h B). exact D.
Qed.

Lemma host_agree_sp_on s : usv_list s -> host_agree_sp hp hd shp shs s.
Proof.
  intros Hs. destruct HP as [[H0 _] [(W1 & _) _]]. unfold host_agree_sp.
  destruct s as [|c r]; [exact I|]. specialize (H0 (c :: r) Hs ltac:(discriminate)). unfold host_fn_ok_at in H0.
  destruct (hp (c :: r)) as [h|e] eqn:Eh; destruct (host_parsing shp false (c :: r)) as [sh|]; try exact H0; try contradiction.
  destruct H0 as (A & B & C & D).
  assert (h <> HDomain []) as Hne by (intros E; apply D in E; discriminate E).
  destruct (W1 _ _ Eh Hne) as (T1 & _ & _ & T4).
  split; [exact A|]. split; [exact (disp_not_colon hd h B)|]. split; [exact Hne|]. split; [exact T1 | exact T4].
Qed.

Lemma host_hyp3_on sbase input : usv_list input -> host_hyp3 hp ho hd shp shs sbase input.
Proof.
  intros Hu. unfold host_hyp3. destruct (class_host_query sbase input) as [[o s]|] eqn:E; [|exact I].
  pose proof (class_host_query_usv sbase input o s Hu E) as Hs.
  destruct o; [exact (host_agree_on s Hs) | exact (host_agree_sp_on s Hs)].
Qed.

(* a host of the Standard that a host parser returns on such a string is the empty host or has a non-empty text *)
Lemma range_text_on o s h : usv_list s -> (o = false -> s <> []) -> host_parsing shp o s = Some h ->
  h = SEmpty \/ shs h <> [].
Proof.
  intros Hs Hne E. destruct HP as [[H0 H1] _].
  assert (forall hf, host_fn_ok_at hf hd shp shs o s -> h = SEmpty \/ shs h <> []) as K.
  { intros hf Hf. unfold host_fn_ok_at in Hf. rewrite E in Hf. destruct (hf s) as [h'|e]; [|contradiction].
    destruct Hf as (A & B & C & _).
    destruct (host_eq_dec_empty h') as [E'|E']; [left; apply C; exact E'|].
    right. rewrite <- A. intros Z. apply E'. apply (disp_nil_iff hd h' B). exact Z. }
  destruct o; [exact (K ho (H1 s Hs)) | exact (K hp (H0 s Hs (Hne eq_refl)))].
Qed.

(* parsing outside Known_C01 yields corrS *)
Theorem parse_all_corrS_on input u : usv_list input -> known_c01 None input = 0 -> input_is_file input = false ->
  parse_url dbg hp ho hd None None input = POk u ->
  exists su, spec_basic_url_parse shp input None = BDone su /\ corrS dbg shs u su.
Proof.
  intros Hu Hk Hif Hp.
  destruct (parsed_full_base dbg hp ho hd shp shs input u
              (statement_all dbg hp ho hd shp shs input None None Hu I (known_v1_of input Hk Hif) (host_hyp3_on None input Hu)) Hp)
    as (su & Hs & [[R Hok] Hshape]).
  exists su. split; [exact Hs|].
  destruct HP as (HF & HW & HE).
  destruct (parse_scheme CUrlParser (input_new_trim_c0 input)) as [[sch rem]|] eqn:Es.
  2:{ unfold parse_url in Hp. rewrite Es in Hp. discriminate Hp. }
  pose proof (input_not_file input sch rem Es Hif) as Hnf.
  pose proof (not_file_type sch Hnf) as Hnft.
  pose proof (parse_nobase_scheme dbg hp ho hd None input sch rem u Es Hnft Hp) as Esch.
  pose proof (rel_sch _ _ _ _ R) as Rsch. rewrite Esch in Rsch.
  destruct (parse_nobase_extra dbg hp ho hd None HW input u Hu Hif Hp) as [MW MT MU MN].
  destruct (spec_parse_uinv shp input su Hs) as [_ UP].
  pose proof (spec_parse_hostU shp input su Hu Hs) as UH.
  apply related_corrS.
  - exact R.
  - constructor.
    + exact MT.
    + exact MU.
    + intros Hh Ha. destruct (MN Hh Ha) as (E1 & E2 & E3). split; [exact E1|]. split; [exact E2|].
      unfold is_special. rewrite <- Rsch, <- special_schemes_are_the_standards, <- Esch. exact E3.
    + exact UP.
    + unfold hostU in UH. destruct (su_host su) as [h|]; [|exact I].
      destruct UH as [->|(o & s & U1 & U2 & E)]; [left; reflexivity | exact (range_text_on o s h U1 U2 E)].
    + exact HE.
  - rewrite <- Rsch. exact Hnf.
  - intros Hsp. unfold base_shape_ok in Hshape. unfold is_special in Hsp. rewrite Hsp in Hshape.
    rewrite <- Rsch in Hshape at 1. change str_file with s_file in Hshape. rewrite Hnf in Hshape.
    cbn [negb orb] in Hshape. unfold sp_base_ok in Hshape.
    apply andb_true_iff in Hshape. exact (proj2 Hshape).
Qed.

Theorem href_step_on u su v : corrS dbg shs u su -> usv_list v -> known_c07 u QHref v = 0 -> href_ok shp shs v ->
  exists u' su', model_set dbg hp ho hd QHref u v = Some u' /\ spec_step shp QHref su v = Some su'
    /\ corrS dbg shs u' su'.
Proof.
  intros C Hv Hk [Hfit Hif]. pose proof (href_outside_known u v Hk) as Hk1.
  apply (href_of_agreement dbg hp ho hd shp shs u su v C Hfit).
  - exact (proj1 (statement_all dbg hp ho hd shp shs v None None Hv I (known_v1_of v Hk1 Hif) (host_hyp3_on None v Hv))).
  - intros u' Hp. exact (parse_all_corrS_on v u' Hv Hk1 Hif Hp).
Qed.

(* all ten setters *)
(* any value for the nine setters other than href; for href a value that fits and whose scheme is not "file" *)
Definition all_ok (s : qsetter) (v : list N) : Prop := s <> QHref \/ href_ok shp shs v.

Lemma ten_ok_all s v : ten_ok shp shs s v -> all_ok s v.
Proof.
  intros [[H|[->|[_ H]]]| ->]; [left; intros ->; discriminate H | left; discriminate | right; exact H | left; discriminate].
Qed.

Fixpoint all_ops (ops : list (qsetter * list N)) : Prop :=
  match ops with
  | [] => True
  | (s, v) :: r => all_ok s v /\ usv_list v /\ all_ops r
  end.

Theorem all_step u su s v : corrS dbg shs u su -> all_ok s v -> usv_list v -> known_c07 u s v = 0 ->
  exists u' su', model_set dbg hp ho hd s u v = Some u' /\ spec_step shp s su v = Some su' /\ corrS dbg shs u' su'.
Proof.
  intros C Hs Hv Hk. destruct (no_href s) eqn:Hn.
  - exact (no_href_step dbg hp ho hd shp shs (proj1 HP) u su s v C Hn Hv Hk).
  - destruct s; try discriminate Hn. destruct Hs as [Hs|Hs]; [contradiction|].
    exact (href_step_on u su v C Hv Hk Hs).
Qed.

Theorem all_from_parse input u ops : usv_list input -> known_c01 None input = 0 -> input_is_file input = false ->
  parse_url dbg hp ho hd None None input = POk u ->
  all_ops ops -> outside_known dbg hp ho hd u ops ->
  exists su, spec_basic_url_parse shp input None = BDone su
    /\ model_api dbg u = Some (spec_api_list shs su)
    /\ forall n, exists u' su',
         model_run dbg hp ho hd u (firstn n ops) = Some u'
         /\ spec_run shp su (firstn n ops) = Some su'
         /\ model_api dbg u' = Some (spec_api_list shs su').
Proof.
  intros Hu Hk Hif Hp.
  exact (usv_api dbg hp ho hd shp shs (corrS dbg shs) (corrS_api dbg shs) all_ok all_ops (fun _ _ _ H => H) all_step
           _ ops u (parse_all_corrS_on input u Hu Hk Hif Hp)).
Qed.

Theorem statement_all_on :
  exists R : url -> spec_url -> Prop,
    (forall u su, R u su -> model_api dbg u = Some (spec_api_list shs su))
    /\ (forall input u, usv_list input -> known_c01 None input = 0 -> input_is_file input = false ->
          parse_url dbg hp ho hd None None input = POk u ->
          exists su, spec_basic_url_parse shp input None = BDone su /\ R u su)
    /\ (forall u su s v, R u su -> all_ok s v -> usv_list v -> known_c07 u s v = 0 ->
          exists u' su', model_set dbg hp ho hd s u v = Some u' /\ spec_step shp s su v = Some su' /\ R u' su').
Proof.
  exists (corrS dbg shs). split; [exact (corrS_api dbg shs)|].
  split; [exact parse_all_corrS_on | exact all_step].
Qed.

End AllOn.

(* under the hypothesis over all strings, in the vocabulary of Proofs/C07_EqTen.v *)
Theorem ten_step dbg hp ho hd shp shs : host_parse_ok hp ho hd shp shs ->
  forall u su s v, corrS dbg shs u su -> ten_ok shp shs s v -> usv_list v -> known_c07 u s v = 0 ->
  exists u' su', model_set dbg hp ho hd s u v = Some u' /\ spec_step shp s su v = Some su' /\ corrS dbg shs u' su'.
Proof.
  intros HP u su s v C H.
  exact (all_step dbg hp ho hd shp shs (host_parse_ok_on_of_all hp ho hd shp shs HP) u su s v C (ten_ok_all shp shs s v H)).
Qed.

(* the real host functions: relative to IdnaOut, the first clause of the oracle hypothesis *)
Theorem real_host_parse_ok_on_out idna : IdnaOut idna ->
  host_parse_ok_on (host_parse idna) host_parse_opaque host_display (spec_host_parser idna) spec_host_serializer.
Proof.
  intros OUT. split; [exact (real_host_fns_ok_on_out idna OUT)|]. split; [exact (real_HostWf_out idna OUT) | reflexivity].
Qed.

(* under the full oracle hypothesis *)
Theorem statement_model dbg idna : IdnaOK idna ->
  exists R : url -> spec_url -> Prop,
    (forall u su, R u su -> model_api dbg u = Some (spec_api_list spec_host_serializer su))
    /\ (forall input u, usv_list input -> known_c01 None input = 0 -> input_is_file input = false ->
          parse_url dbg (host_parse idna) host_parse_opaque host_display None None input = POk u ->
          exists su, spec_basic_url_parse (spec_host_parser idna) input None = BDone su /\ R u su)
    /\ (forall u su s v, R u su -> all_ok (spec_host_parser idna) spec_host_serializer s v -> usv_list v ->
          known_c07 u s v = 0 ->
          exists u' su', model_set dbg (host_parse idna) host_parse_opaque host_display s u v = Some u'
            /\ spec_step (spec_host_parser idna) s su v = Some su' /\ R u' su').
Proof. intros OK. exact (statement_all_on dbg _ _ _ _ _ (real_host_parse_ok_on_out idna (IdnaOK_out idna OK))). Qed.

Theorem model_histories dbg idna : IdnaOK idna ->
  forall input u ops, usv_list input -> known_c01 None input = 0 -> input_is_file input = false ->
  parse_url dbg (host_parse idna) host_parse_opaque host_display None None input = POk u ->
  all_ops (spec_host_parser idna) spec_host_serializer ops ->
  outside_known dbg (host_parse idna) host_parse_opaque host_display u ops ->
  exists su, spec_basic_url_parse (spec_host_parser idna) input None = BDone su
    /\ model_api dbg u = Some (spec_api_list spec_host_serializer su)
    /\ forall n, exists u' su',
         model_run dbg (host_parse idna) host_parse_opaque host_display u (firstn n ops) = Some u'
         /\ spec_run (spec_host_parser idna) su (firstn n ops) = Some su'
         /\ model_api dbg u' = Some (spec_api_list spec_host_serializer su').
Proof. intros OK. exact (all_from_parse dbg _ _ _ _ _ (real_host_parse_ok_on_out idna (IdnaOK_out idna OK))). Qed.
