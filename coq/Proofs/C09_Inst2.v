(* Proofs/C09_Inst2.v - the theorems about the linked model relative to IdnaOK (false of the real idna
   crate, F-C10-1: model_long_not_IdnaOK), for the REAL oracle: premise IdnaOK2 + a cleanliness premise on the RESULT
   (res_clean, Proofs/C09_RunClean.v) or on the history (histories of the capped model = clean histories).
   Each is the IdnaOK-relative theorem at the capped oracle (IdnaOK2 idna -> IdnaOK (cap idna)) + agreement of the runs. *)
From RU Require Import Base.Prelude Base.Utf8 Model.Host Model.UrlRecord Model.Parser Model.WF Proofs.C09_Host
  Proofs.C09_InstWf Proofs.C09_Long Proofs.C09_LongRun Proofs.C09_RunClean Proofs.C05_HostParse.
From RU Require Proofs.C02_Reach Proofs.C02_Reach3 Proofs.C03_ParseFront Proofs.C06_Main Proofs.C05_Alphabet Proofs.C05_Sharp Proofs.C05_HostText Proofs.C02_AuthMain Proofs.C02_Reach5 Proofs.C03_ReachModel Proofs.C03_ReachFull
  Proofs.C05_ReachF Proofs.C05_HostInst Proofs.C05_Comp Proofs.C05_CompSteps Proofs.C04_ParseTotal Proofs.C05_BaseOk Proofs.C06_Suffix Proofs.Inst_Host.

Section Inst2.
Variable dbg : bool.
Variable idna : list N -> option (list N).
Hypothesis OK : IdnaOK2 idna.
Let OKc : IdnaOK (cap idna) := IdnaOK2_cap idna OK.

Notation hp := (host_parse idna).
Notation hpc := (host_parse (cap idna)).
Notation hpo := host_parse_opaque.
Notation hd := host_display.

Lemma base_ok_wf b : C04_ParseTotal.base_ok b = true -> wf_b b = true.
Proof. intros H. exact (proj1 (proj1 (C05_BaseOk.base_ok_iff b) H)). Qed.

(* the capped run of a successful run with a clean result *)
Lemma capped_run ovr base input u : match base with Some b => wf_b b = true | None => True end ->
  parse_url dbg hp hpo hd ovr base input = POk u -> res_clean u = true ->
  parse_url dbg hpc hpo hd ovr base input = POk u.
Proof. intros Hb H C. exact (run_clean_ok dbg idna ovr base input u H (run_clean_of_result dbg idna OK ovr base input u Hb H C)). Qed.

(* a theorem about the results of the capped model, under a premise Pb on the base that includes base_ok, holds of the
   clean results of the model with the oracle itself *)
Lemma clean_transfer (Pb Q : url -> Prop) ovr base input u : (forall b, Pb b -> C04_ParseTotal.base_ok b = true) ->
  (match base with Some b => Pb b | None => True end -> parse_url dbg hpc hpo hd ovr base input = POk u -> Q u) ->
  match base with Some b => Pb b | None => True end ->
  parse_url dbg hp hpo hd ovr base input = POk u -> res_clean u = true -> Q u.
Proof.
  intros HP T Hb H C. apply (T Hb). apply capped_run; [|exact H | exact C].
  destruct base as [b|]; [exact (base_ok_wf b (HP b Hb)) | exact I].
Qed.

End Inst2.

(* ---------- whole histories: the histories of the CAPPED model (= the histories of the model on which no host is in
   the class, C09_cap_history) ---------- *)
Section Hist2.
Variable dbg : bool.
Variable idna : list N -> option (list N).
Hypothesis OK : IdnaOK2 idna.
Let OKc : IdnaOK (cap idna) := IdnaOK2_cap idna OK.

Notation hp := (host_parse idna).
Notation hpc := (host_parse (cap idna)).
Notation hpo := host_parse_opaque.
Notation hd := host_display.

(* C03_reachability_full_model *)
Theorem reach3_model2 u : C02_Reach3.Reachable3 dbg hpc hpo hd u -> C03_ParseFront.inv03 u.
Proof. exact (C03_ReachModel.reach3_model dbg (cap idna) OKc u). Qed.

(* C05_reachF_model: the property text of C05 *)
Theorem reachF_model2 u : C05_ReachF.CReachF dbg hpc hpo hd u ->
  (C06_Main.wfh u /\ C05_Comp.components_clean dbg u) /\ C05_Alphabet.alphabet_ok u /\ C05_Sharp.sharp u
  /\ C04_ParseTotal.base_ok u = true
  /\ (C05_HostText.spb u = true -> forall s, host_str u = Some (Some s) -> C05_HostInst.host_text_clean s).
Proof.
  intros R. split; [exact (C05_HostInst.reachF_components_model (cap idna) OKc dbg u R)|].
  split; [exact (C05_HostInst.reachF_alphabet_model (cap idna) OKc dbg u R)|].
  split; [exact (C05_HostInst.reachF_sharp_model (cap idna) OKc dbg u R)|].
  split; [exact (proj1 (C05_HostInst.reachF_base_ok_model (cap idna) OKc dbg u R))
         | exact (C05_HostInst.reachF_host_clean_model (cap idna) OKc dbg u R)].
Qed.

End Hist2.
