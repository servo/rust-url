(* Proofs/C03_ReachHost.v - the hypothesis HostWf of C03_Reach.v follows from the round-trip hypothesis
   HostRT that the C02 theorems use (hence from C02's HostOK), it has a concrete instance, and examples of
   relative references that go through parse_url_wf. *)
From Coq Require Import String.
From RU Require Import Base.Prelude Model.HostT Model.UrlRecord Model.Parser Model.WF
  Proofs.ListN Proofs.C06_List Proofs.C06_Suffix Proofs.C02_Reach Proofs.C02_AuthParts Proofs.C02_AuthMain
  Proofs.C04_ParseTotal Proofs.C03_ReachParts Proofs.C03_Reach.
Open Scope N_scope.
Open Scope list_scope.

Lemma host_text_ok_wf t : C02_Reach.host_text_ok t -> host_text_wf t.
Proof.
  intros Ht. destruct (host_text_facts t Ht) as [Hf H58]. pose proof (host_text_last t [] Ht) as Hl.
  destruct Ht as (_ & Hne & _). destruct t as [|c r]; [contradiction|].
  split; [discriminate|]. cbn [forallb] in Hf. apply andb_true_iff in Hf. destruct Hf as [Hc _].
  unfold plainc in Hc. change (nnth (c :: r) 0) with (Some c).
  split; [intros E; inversion E; subst c; discriminate H58|].
  split; [intros E; inversion E; subst c; discriminate Hc | exact Hl].
Qed.

Theorem HostRT_HostWf hp hpo hd : HostRT hp hpo hd -> HostWf hp hpo hd.
Proof.
  intros (H1 & H2 & H3 & _). split; [|split; [|exact H3]].
  - intros s h E Hne. apply host_text_ok_wf. exact (proj1 (H1 s h E Hne)).
  - intros s h E Hne. apply host_text_ok_wf. exact (proj1 (H2 s h E Hne)).
Qed.

Lemma ex_host_wf : HostWf ex_hp ex_hp ex_hd.
Proof. apply HostRT_HostWf. exact (proj1 ex_host_RT). Qed.

(* computable form of C06's host_text_ok, for the examples *)
Definition host_text_b (u : url) : bool :=
  negb (has_host u)
  || ((host_start u <? host_end u) && negb (byte_eqb (ser u) (host_start u) 58) && negb (byte_eqb (ser u) (host_start u) 64)).

Lemma host_text_b_ok u : host_text_b u = true -> C06_Suffix.host_text_ok u.
Proof.
  unfold host_text_b. intros H Hh. rewrite Hh in H. cbn [negb orb] in H.
  apply andb_true_iff in H. destruct H as [H H3]. apply andb_true_iff in H. destruct H as [H1 H2].
  split; [lia|]. split; apply negb_true_iff; assumption.
Qed.

(* base "http://u@h.x:81/a/b?q#f" and "a://h/p/q?x", with the references "../c?r", "//o.x/", "#g", "?y",
   "/z", "" and "http:rel" (same special scheme): each is outside the file class, the base satisfies the
   premises, and the result is as expected *)
Definition ex_join (base ref expect : string) : bool :=
  match parse_url true ex_hp ex_hp ex_hd None None (B base) with
  | POk b =>
      base_ok b && host_text_b b && negb (file_involved (Some b) (B ref))
      && match parse_url true ex_hp ex_hp ex_hd None (Some b) (B ref) with
         | POk u => list_eqb (ser u) (B expect) && wf_b u && host_text_b u
         | _ => false
         end
  | _ => false
  end.

Lemma join_examples :
  ex_join "http://u@h.x:81/a/b?q#f" "../c?r" "http://u@h.x:81/c?r" = true
  /\ ex_join "http://u@h.x:81/a/b?q#f" "//o.x/" "http://o.x/" = true
  /\ ex_join "http://u@h.x:81/a/b?q#f" "#g" "http://u@h.x:81/a/b?q#g" = true
  /\ ex_join "http://u@h.x:81/a/b?q#f" "?y" "http://u@h.x:81/a/b?y" = true
  /\ ex_join "http://u@h.x:81/a/b?q#f" "http:rel" "http://u@h.x:81/a/rel" = true
  /\ ex_join "a://h/p/q?x" "/z" "a://h/z" = true
  /\ ex_join "a://h/p/q?x" "" "a://h/p/q?x" = true
  /\ ex_join "a:/p/q" "..//r" "a:/.//r" = true.
Proof. vm_compute. repeat split. Qed.

(* the statement without a hypothesis on the host functions is false *)
(* a "host display" that starts with ':' : "a://x" is serialized as "a://:" with username_end = host_start = 4
   and a ':' at that offset, which password() would read as the start of a password *)
Definition bad_hp (_ : list N) : result host := Ok (HDomain [58]).
Definition bad_hd (h : host) : list N := match h with HDomain d => d | _ => [] end.

Lemma no_host_hypothesis_witness :
  exists u, parse_url true bad_hp bad_hp bad_hd None None (B "a://x") = POk u
            /\ ser u = B "a://:" /\ wf_b u = false.
Proof. eexists. split; [vm_compute; reflexivity|]. split; vm_compute; reflexivity. Qed.

(* the file scheme: absolute (host, drive letters, '|'), and references against a file base *)
Definition ex_file (input expect : string) : bool :=
  match parse_url true ex_hp ex_hp ex_hd None None (B input) with
  | POk u => file_involved None (B input) && list_eqb (ser u) (B expect) && wf_b u && host_text_b u
  | _ => false
  end.

Lemma file_examples :
  ex_file "file://h/C|/x" "file:///C:/x" = true /\ ex_file "file:///C|" "file:///C|" = true
  /\ ex_file "file:\\h\p?q#f" "file://h/p?q#f" = true /\ ex_file "file:x" "file:///x" = true
  /\ ex_join "file://h/a/b?q#f" "/C|/x" "file:///C:/x" = false   (* file_involved: outside ex_join's class *)
  /\ match parse_url true ex_hp ex_hp ex_hd None None (B "file://h/a/b?q#f") with
     | POk b => base_ok b && host_text_b b
                && match parse_url true ex_hp ex_hp ex_hd None (Some b) (B "../c") with
                   | POk u => list_eqb (ser u) (B "file://h/c") && wf_b u && host_text_b u
                   | _ => false
                   end
     | _ => false
     end = true.
Proof. vm_compute. repeat split. Qed.
