(* Proofs/C03_Reach.v - the states of the parser behind the scheme, as far as wf_b (Model/WF.v) and host_text_ok (C06)
   are concerned: what the states in front of the query leave is a record with front_ok, and with_query_and_fragment
   turns such a record into a well-formed one (wqf_wf); the authority state (ads_shape, ads_wf); "scheme:path" without
   authority; a new path behind the front of a well-formed base; the base without its query or fragment.
   Hypothesis on the host functions: HostWf (C03_ReachParts).  C03_ReachFile.v puts the states together. *)
From RU Require Import Base.Prelude Base.Utf8 Model.AsciiSet Gen.Tables Model.PercentEncoding
  Model.HostT Model.UrlRecord Model.Parser Model.WF
  Proofs.ListN Proofs.C06_List Proofs.C02_Parts Proofs.C02_Opaque Proofs.C03_WF Proofs.C06_WFI Proofs.C06_Tail
  Proofs.C06_Steps Proofs.C06_Suffix Proofs.C06_FragQuery Proofs.C06_PathParser
  Proofs.C05_Parser Proofs.C04_Parse Proofs.C04_PathTotal Proofs.C04_ParseTotal Proofs.C03_ReachParts.

Ltac urec :=
  cbn [ser scheme_end username_end host_start host_end hosti port path_start query_start fragment_start] in *.

Lemma ss_of_bytes s i : nnth s i = Some 47 -> nnth s (i + 1) = Some 47 -> starts_with s_ss (nskipn i s) = true.
Proof.
  intros H1 H2. rewrite (nskipn_cons_of_nnth _ _ _ H1), (nskipn_cons_of_nnth _ _ _ H2). reflexivity.
Qed.

Lemma three_bytes s i a b c : nnth s i = Some a -> nnth s (i + 1) = Some b -> nnth s (i + 2) = Some c ->
  nfirstn 3 (nskipn i s) = [a; b; c].
Proof.
  intros H1 H2 H3. rewrite (nskipn_cons_of_nnth _ _ _ H1), (nskipn_cons_of_nnth _ _ _ H2).
  replace (i + 2) with (i + 1 + 1) in H3 by lia. rewrite (nskipn_cons_of_nnth _ _ _ H3). reflexivity.
Qed.

Lemma nfirstn3_bytes s i a b c : nfirstn 3 (nskipn i s) = [a; b; c] ->
  nnth s i = Some a /\ nnth s (i + 1) = Some b /\ nnth s (i + 2) = Some c.
Proof.
  intros H. pose proof (nnth_nskipn s i 0) as E0. pose proof (nnth_nskipn s i 1) as E1. pose proof (nnth_nskipn s i 2) as E2.
  rewrite N.add_0_r in E0. rewrite <- E0, <- E1, <- E2.
  destruct (nskipn i s) as [|x [|y [|z t]]]; try discriminate. inversion H; subst. repeat split.
Qed.

Lemma byte_eqb_oob l i c : nlen l <= i -> byte_eqb l i c = false.
Proof.
  intros H. destruct (byte_eqb l i c) eqn:E; [|reflexivity]. apply byte_eqb_lt in E. lia.
Qed.

Lemma ends_with_byte_app b a t : t <> [] -> ends_with_byte b (a ++ t) = ends_with_byte b t.
Proof.
  intros Ht. unfold ends_with_byte. rewrite rev_app_distr. destruct (rev t) as [|x r] eqn:E; [|reflexivity].
  exfalso. apply Ht. rewrite <- (rev_involutive t), E. reflexivity.
Qed.

(* A. a record without query and fragment *)
Lemma mid_wf v : query_start v = None -> fragment_start v = None ->
  scheme_ok v -> path_start v <= nlen (ser v) -> forallb no_qh (nskipn (path_start v) (ser v)) = true ->
  (if has_authority_b v
   then auth_ok v /\ (path_start v = nlen (ser v) \/ nnth (ser v) (path_start v) = Some 47)
   else noauth_ok v) ->
  wf_b v = true.
Proof.
  intros Eq Ef S L Q A. apply wf_b_iff. split; [exact S|]. split.
  - destruct (has_authority_b v); [|exact A]. destruct A as [A P]. split; [exact A|].
    destruct P as [P|P]; [left; exact P | right; left; apply byte_eqb_true_iff; exact P].
  - unfold qf_ok, path_end. rewrite Eq, Ef. repeat split.
    rewrite nfirstn_all by (rewrite nlen_nskipn; lia). exact Q.
Qed.

(* the host text (C06's host_text_ok) lies in front of the path *)
Lemma ht_none u : hosti u = HI_None -> host_text_ok u.
Proof. intros E Hh. unfold has_host in Hh. rewrite E in Hh. discriminate. Qed.

Lemma wf_host_range u : wf_b u = true -> host_start u < host_end u -> host_end u <= path_start u.
Proof.
  intros W Hlt. destruct (has_authority_b u) eqn:Ha.
  - exact (af_ps (wf_auth_facts u W Ha)).
  - pose proof (wf_noauth_facts u W Ha) as F. pose proof (nf_hs F). pose proof (nf_he F). lia.
Qed.

Lemma ht_pre a u u' : agree_pre a (ser u) (ser u') -> host_end u <= a ->
  host_start u' = host_start u -> host_end u' = host_end u -> hosti u' = hosti u ->
  host_text_ok u -> host_text_ok u'.
Proof.
  intros Hpre Ha E3 E4 E5 HT Hh. unfold has_host in Hh. rewrite E5 in Hh. destruct (HT Hh) as (T1 & T2 & T3).
  rewrite E3, E4. split; [exact T1|]. rewrite !(pre_byte_eqb a _ _ _ _ Hpre) by lia. split; assumption.
Qed.

(* B. the query / fragment states append to a well-formed record *)
Lemma pqf_wf ovr st se w rem s2 qs fs : wf_b w = true -> query_start w = None -> fragment_start w = None ->
  parse_query_and_fragment ovr CUrlParser st se (ser w) rem = POk (s2, qs, fs) ->
  wf_b (mkUrl s2 (scheme_end w) (username_end w) (host_start w) (host_end w) (hosti w) (port w) (path_start w) qs fs) = true.
Proof.
  intros W Eq Ef H. destruct (pqf_shape _ _ _ _ _ _ _ _ H) as (q & f & -> & -> & -> & Hq).
  destruct w as [s se0 ue hs he hi pt ps qs0 fs0]. urec. subst qs0 fs0.
  (* "?q" and "#f" are appended by the two steps of C06 *)
  destruct q as [x|]; unfold qf_text; cbn [qf_qtext qf_qs qf_fs opt_no_h] in *.
  - destruct (add_query_step false _ x W eq_refl eq_refl Hq) as (W1 & _ & _ & _ & _ & F1).
    destruct f as [y|]; cbn [qf_ftext qf_fs qf_qtext]; [|rewrite app_nil_r; exact W1].
    destruct (add_fragment_step false _ y W1 F1) as (W2 & _). rewrite app_assoc, <- nlen_app. exact W2.
  - destruct f as [y|]; cbn [qf_ftext qf_fs qf_qtext app]; [|rewrite app_nil_r; exact W].
    destruct (add_fragment_step false _ y W eq_refl) as (W2 & _). rewrite nlen_nil, N.add_0_r. exact W2.
Qed.

Lemma pqf_ht ovr st se w rem s2 qs fs : wf_b w = true -> host_text_ok w ->
  parse_query_and_fragment ovr CUrlParser st se (ser w) rem = POk (s2, qs, fs) ->
  host_text_ok (mkUrl s2 (scheme_end w) (username_end w) (host_start w) (host_end w) (hosti w) (port w) (path_start w) qs fs).
Proof.
  intros W HT H. destruct (pqf_shape _ _ _ _ _ _ _ _ H) as (q & f & -> & _).
  intros Hh. pose proof (HT Hh) as (T1 & _). pose proof (wf_host_range w W T1) as R. pose proof (path_start_le_len w W) as L.
  revert Hh. apply (ht_pre (nlen (ser w)) w); try reflexivity; [apply agree_pre_app_r | lia | exact HT].
Qed.

(* C. with_query_and_fragment *)
(* what the states in front of it establish: scheme, the text in front of the path laid out either as an
   authority or as "scheme:" / "scheme:/." , and a path free of '?' / '#' *)
Definition front_ok (v : url) : Prop :=
  scheme_ok v /\ path_start v <= nlen (ser v) /\ forallb no_qh (nskipn (path_start v) (ser v)) = true
  /\ host_text_ok v
  /\ ((has_authority_b v = true /\ auth_ok v
       /\ (path_start v = nlen (ser v) \/ nnth (ser v) (path_start v) = Some 47))
      \/ (username_end v = scheme_end v + 1 /\ host_start v = scheme_end v + 1 /\ host_end v = scheme_end v + 1
          /\ hosti v = HI_None /\ port v = None
          /\ (path_start v = scheme_end v + 1
              \/ (path_start v = scheme_end v + 3 /\ nnth (ser v) (scheme_end v + 1) = Some 47
                  /\ nnth (ser v) (scheme_end v + 2) = Some 46)))).

Lemma front_noauth_wf s se ps : 1 <= se ->
  scheme_ok (mkUrl s se (se + 1) (se + 1) (se + 1) HI_None None ps None None) ->
  ps <= nlen s -> forallb no_qh (nskipn ps s) = true ->
  starts_with s_css (nskipn se s) = false ->
  (ps = se + 1 \/ (ps = se + 3 /\ nnth s (se + 1) = Some 47 /\ nnth s (se + 2) = Some 46
                   /\ starts_with s_ss (nskipn ps s) = true)) ->
  wf_b (mkUrl s se (se + 1) (se + 1) (se + 1) HI_None None ps None None) = true.
Proof.
  intros Hse S L Q Ha P. apply mid_wf; try reflexivity; try assumption.
  unfold has_authority_b. urec. rewrite Ha. unfold noauth_ok. urec.
  repeat split; try assumption.
  destruct P as [P|(P1 & P2 & P3 & P4)]; [left; exact P|]. right.
  repeat split; try assumption; apply byte_eqb_true_iff; assumption.
Qed.

Theorem wqf_wf ovr st v rem u : front_ok v -> query_start v = None -> fragment_start v = None ->
  with_query_and_fragment ovr CUrlParser st (scheme_end v) (username_end v) (host_start v) (host_end v)
    (hosti v) (port v) (path_start v) (ser v) rem = POk u ->
  wf_b u = true /\ host_text_ok u.
Proof.
  destruct v as [s se ue hs he hi pt ps qs0 fs0]. urec. intros (S & L & Q & HT & F) -> ->.
  pose proof S as (S1 & (c0 & Sc & Sa) & S3 & S4). urec. apply byte_eqb_nnth in S4.
  unfold with_query_and_fragment.
  (* the last step, for a well-formed record w in front of the query *)
  assert (forall w, wf_b w = true -> host_text_ok w -> query_start w = None -> fragment_start w = None ->
            scheme_end w = se -> username_end w = ue -> host_start w = hs -> host_end w = he -> hosti w = hi ->
            port w = pt ->
            (' (ser2, qs, fs) <~ parse_query_and_fragment ovr CUrlParser st se (ser w) rem ;;
             POk (mkUrl ser2 se ue hs he hi pt (path_start w) qs fs)) = POk u -> wf_b u = true /\ host_text_ok u) as Hlast.
  { intros w W HTw Eq Ef E1 E2 E3 E4 E5 E6 H.
    destruct (parse_query_and_fragment ovr CUrlParser st se (ser w) rem) as [[[s2 qs] fs]| |] eqn:Ep; cbn [pbind] in H; try discriminate.
    inversion H; subst u. pose proof (pqf_wf _ _ _ _ _ _ _ _ W Eq Ef Ep) as R.
    pose proof (pqf_ht _ _ _ _ _ _ _ _ W HTw Ep) as R2.
    rewrite E1, E2, E3, E4, E5, E6 in R, R2. split; [exact R | exact R2]. }
  destruct (ps =? se + 1) eqn:E1.
  - (* "scheme:" directly followed by the path *)
    apply N.eqb_eq in E1. subst ps.
    destruct F as [(_ & (A1 & A2 & A3 & A4 & _) & _)|(-> & -> & -> & -> & -> & _)]; [urec; lia|].
    destruct (starts_with s_ss (nskipn (se + 1) s)) eqn:Ess.
    + destruct (starts_with s_css (nskipn se (nfirstn (se + 1) s ++ [47; 46] ++ nskipn (se + 1) s))) eqn:Ea;
        cbn [negb passert pbind]; [discriminate|].
      assert (nlen (nfirstn (se + 1) s) = se + 1) as Lp by (apply nlen_nfirstn; exact L).
      intros H.
      apply (Hlast (mkUrl (nfirstn (se + 1) s ++ [47; 46] ++ nskipn (se + 1) s) se (se + 1) (se + 1) (se + 1) HI_None None (se + 1 + 2) None None));
        try reflexivity; [|apply ht_none; reflexivity|exact H].
      apply front_noauth_wf; try assumption.
      * apply (scheme_ok_pre (se + 1) (mkUrl s se (se + 1) (se + 1) (se + 1) HI_None None (se + 1) None None));
          [urec; apply agree_pre_nfirstn; exact L | urec; lia | reflexivity | exact S].
      * rewrite !nlen_app, Lp, nlen_nskipn. change (nlen [47; 46]) with 2. lia.
      * replace (se + 1 + 2) with (nlen (nfirstn (se + 1) s ++ [47; 46])) by (rewrite nlen_app, Lp; reflexivity).
        rewrite app_assoc. rewrite nskipn_app_len. exact Q.
      * right. split; [lia|].
        split; [rewrite nnth_app_ge by lia; rewrite Lp; replace (se + 1 - (se + 1)) with 0 by lia; reflexivity|].
        split; [rewrite nnth_app_ge by lia; rewrite Lp; replace (se + 2 - (se + 1)) with 1 by lia; reflexivity|].
        replace (se + 1 + 2) with (nlen (nfirstn (se + 1) s ++ [47; 46])) by (rewrite nlen_app, Lp; reflexivity).
        rewrite app_assoc. rewrite nskipn_app_len. exact Ess.
    + destruct (starts_with s_css (nskipn se s)) eqn:Ea; cbn [negb passert pbind]; [discriminate|].
      intros H.
      apply (Hlast (mkUrl s se (se + 1) (se + 1) (se + 1) HI_None None (se + 1) None None)); try reflexivity; [|apply ht_none; reflexivity|exact H].
      apply front_noauth_wf; try assumption. left. reflexivity.
  - apply N.eqb_neq in E1.
    destruct ((ps =? se + 3) && list_eqb (nfirstn (ps - se) (nskipn se s)) [58; 47; 46]) eqn:E2.
    + (* "scheme:/." in front of the path *)
      apply andb_true_iff in E2. destruct E2 as [E2 E3]. apply N.eqb_eq in E2. apply list_eqb_spec in E3. subst ps.
      replace (se + 3 - se) with 3 in E3 by lia.
      pose proof (css_dot_false _ E3) as Ha. apply nfirstn3_bytes in E3. destruct E3 as (_ & B1 & B2).
      destruct F as [(Ha' & _)|(-> & -> & -> & -> & -> & _)]; [unfold has_authority_b in Ha'; urec; congruence|].
      destruct (nnth s (se + 3)) as [b|] eqn:E47; [|cbn [passert pbind]; discriminate].
      destruct (b =? 47) eqn:Eb; cbn [passert pbind]; [|discriminate]. apply N.eqb_eq in Eb. subst b.
      rewrite match47.
      destruct (match nnth s (se + 3 + 1) with Some d => d =? 47 | None => false end) eqn:Ed.
      * rewrite Ha. cbn [negb passert pbind]. intros H.
        apply (Hlast (mkUrl s se (se + 1) (se + 1) (se + 1) HI_None None (se + 3) None None)); try reflexivity; [|apply ht_none; reflexivity|exact H].
        apply front_noauth_wf; try assumption. right. split; [reflexivity|]. split; [exact B1|]. split; [exact B2|].
        apply ss_of_bytes; [exact E47|]. destruct (nnth s (se + 3 + 1)) as [d|]; [|discriminate].
        apply N.eqb_eq in Ed. subst d. reflexivity.
      * destruct (starts_with s_css (nskipn se (nfirstn se s ++ [58] ++ nskipn (se + 3) s))) eqn:Ea;
          cbn [negb passert pbind]; [discriminate|].
        assert (se <= nlen s) as Ls by lia.
        assert (nlen (nfirstn se s) = se) as Lp by (apply nlen_nfirstn; exact Ls).
        intros H.
        apply (Hlast (mkUrl (nfirstn se s ++ [58] ++ nskipn (se + 3) s) se (se + 1) (se + 1) (se + 1) HI_None None (se + 3 - 2) None None));
          try reflexivity; [|apply ht_none; reflexivity|exact H].
        replace (se + 3 - 2) with (se + 1) by lia.
        apply front_noauth_wf; try assumption.
        -- unfold scheme_ok. urec. split; [exact S1|]. split; [|split].
           ++ exists c0. split; [|exact Sa]. rewrite nnth_app_lt by lia. rewrite nnth_nfirstn by lia. exact Sc.
           ++ rewrite nfirstn_app_le by lia. rewrite nfirstn_nfirstn by lia. exact S3.
           ++ pose proof (byte_eqb_app (nfirstn se s) 58 (nskipn (se + 3) s)) as B. rewrite Lp in B. exact B.
        -- rewrite !nlen_app, Lp, nlen_nskipn. change (nlen [58]) with 1. lia.
        -- replace (se + 1) with (nlen (nfirstn se s ++ [58])) by (rewrite nlen_app, Lp; reflexivity).
           rewrite app_assoc. rewrite nskipn_app_len. exact Q.
        -- left. reflexivity.
    + (* everything else: the record has an authority *)
      cbn [pbind]. intros H.
      apply (Hlast (mkUrl s se ue hs he hi pt ps None None)); try reflexivity; [|exact HT|exact H].
      destruct F as [(Ha & A & P)|(-> & -> & -> & -> & -> & [P|(P1 & P2 & P3)])].
      * apply mid_wf; try reflexivity; try assumption. rewrite Ha. split; assumption.
      * contradiction.
      * exfalso. subst ps. rewrite N.eqb_refl in E2. cbn [andb] in E2.
        replace (se + 3 - se) with 3 in E2 by lia. rewrite (three_bytes s se 58 47 46 S4 P2 P3) in E2. discriminate.
Qed.

(* D. after "//" : userinfo, host, port, path *)
(* the serialization in front of "//" is "scheme:" *)
Definition scheme_pre_ok (se : N) (ser0 : list N) : Prop :=
  1 <= se /\ (exists c, nnth ser0 0 = Some c /\ is_alpha c = true)
  /\ forallb scheme_char (nfirstn se ser0) = true /\ nnth ser0 se = Some 58 /\ nlen ser0 = se + 1.

Lemma css_of_bytes s i : nnth s i = Some 58 -> nnth s (i + 1) = Some 47 -> nnth s (i + 2) = Some 47 ->
  starts_with s_css (nskipn i s) = true.
Proof.
  intros H1 H2 H3. rewrite (nskipn_cons_of_nnth _ _ _ H1), (nskipn_cons_of_nnth _ _ _ H2).
  replace (i + 2) with (i + 1 + 1) in H3 by lia. rewrite (nskipn_cons_of_nnth _ _ _ H3). reflexivity.
Qed.

Lemma hi_none_empty h : hi_of_host h = HI_None -> h = HDomain [].
Proof. destruct h as [[|c d]|a|p]; cbn; intros H; try discriminate; reflexivity. Qed.

Section Ads.
Variable hp hpo : list N -> result host.
Variable hd : host -> list N.
Hypothesis HW : HostWf hp hpo hd.

Lemma auth_front_ok se ser0 x ue h pt s3 :
  scheme_pre_ok se ser0 ->
  let A := ser0 ++ [47; 47] in
  let ser1 := A ++ x in
  ((x = [] /\ ue = nlen A)
   \/ (nlen A <= ue /\ nnth ser1 ue = Some 58 /\ ue + 2 <= nlen ser1 /\ nnth ser1 (nlen ser1 - 1) = Some 64)
   \/ (nlen A <= ue /\ nnth ser1 ue = Some 64 /\ nlen ser1 = ue + 1)) ->
  match pt with Some p => p <= 65535 | None => True end ->
  ((h = HDomain [] /\ hd h = [] /\ pt = None) \/ host_text_wf (hd h)) ->
  let ser2 := ser1 ++ hd h ++ ptext pt in
  agree_pre (nlen ser2) ser2 s3 -> nlen ser2 <= nlen s3 ->
  (nlen s3 = nlen ser2 \/ nnth s3 (nlen ser2) = Some 47) ->
  forallb no_qh (nskipn (nlen ser2) s3) = true ->
  front_ok (mkUrl s3 se ue (nlen ser1) (nlen ser1 + nlen (hd h)) (hi_of_host h) pt (nlen ser2) None None).
Proof using HW.
  intros (S1 & (c0 & Sc & Sa) & S3 & S4 & S5) A ser1 U P Hh ser2 Hpre Hlen Hps Hq.
  assert (nlen A = se + 3) as LA by (subst A; rewrite nlen_app, S5; change (nlen [47; 47]) with 2; lia).
  assert (nlen ser1 = se + 3 + nlen x) as L1 by (subst ser1; rewrite nlen_app, LA; reflexivity).
  assert (nlen ser2 = nlen ser1 + nlen (hd h) + nlen (ptext pt)) as L2 by (subst ser2; rewrite !nlen_app; lia).
  (* bytes of the new serialization in front of the path are those of ser2 *)
  assert (forall i, i < nlen ser2 -> nnth s3 i = nnth ser2 i) as Hb by (intros i Hi; apply (pre_nnth _ _ _ _ Hpre Hi)).
  assert (forall i, i < nlen ser1 -> nnth ser2 i = nnth ser1 i) as Hb1 by (intros i Hi; subst ser2; apply nnth_app_lt; exact Hi).
  assert (forall i, i < nlen A -> nnth ser1 i = nnth A i) as HbA by (intros i Hi; subst ser1; apply nnth_app_lt; exact Hi).
  assert (forall i, i < nlen ser0 -> nnth A i = nnth ser0 i) as Hb0 by (intros i Hi; subst A; apply nnth_app_lt; exact Hi).
  assert (forall i, i < se + 1 -> nnth s3 i = nnth ser0 i) as HbS.
  { intros i Hi. rewrite Hb, Hb1, HbA, Hb0 by lia. reflexivity. }
  assert (nnth s3 (se + 1) = Some 47 /\ nnth s3 (se + 2) = Some 47) as [B1 B2].
  { rewrite !Hb, !Hb1, !HbA by lia. subst A. rewrite !nnth_app_ge by lia. rewrite S5.
    replace (se + 1 - (se + 1)) with 0 by lia. replace (se + 2 - (se + 1)) with 1 by lia. split; reflexivity. }
  assert (ue <> nlen ser1 -> ue < nlen ser1) as Hue.
  { intros Hne. destruct U as [(-> & ->)|[(U1 & U2 & U3 & U4)|(U1 & U2 & U3)]]; [|lia|lia].
    exfalso. apply Hne. subst ser1. rewrite app_nil_r. reflexivity. }
  unfold front_ok. urec. split; [|split; [exact Hlen|split; [exact Hq|split]]].
  - (* scheme *)
    unfold scheme_ok. urec. split; [exact S1|]. split; [|split].
    + exists c0. split; [|exact Sa]. rewrite HbS by lia. exact Sc.
    + rewrite (pre_firstn _ _ _ se Hpre) by lia. subst ser2 ser1 A. rewrite <- !app_assoc.
      rewrite nfirstn_app_le by lia. exact S3.
    + apply byte_eqb_true_iff. rewrite HbS by lia. exact S4.
  - (* host text *)
    intros Hhas. unfold has_host in Hhas. urec.
    destruct Hh as [(-> & _)|(Hne & H58 & H64 & _)]; [cbn in Hhas; discriminate|].
    destruct (hd h) as [|c t] eqn:Ehd; [contradiction|].
    assert (nnth s3 (nlen ser1) = Some c) as Ec.
    { rewrite Hb by (rewrite L2, nlen_cons; lia). subst ser2. rewrite nnth_app_ge by lia. rewrite N.sub_diag. reflexivity. }
    split; [rewrite nlen_cons; lia|]. cbn in H58, H64.
    split; apply byte_eqb_false_of; congruence.
  - left. split; [|split].
    + unfold has_authority_b. urec. apply css_of_bytes; [rewrite HbS by lia; exact S4 | exact B1 | exact B2].
    + unfold auth_ok. urec.
      split; [destruct U as [(_ & ->)|[(U1 & _)|(U1 & _)]]; lia|].
      split; [destruct U as [(-> & ->)|[(U1 & U2 & U3 & U4)|(U1 & U2 & U3)]]; [subst ser1; rewrite app_nil_r|..]; lia|].
      split; [lia|]. split; [lia|]. split; [exact Hlen|]. split; [|split].
      * (* userinfo *)
        unfold userinfo_ok. urec.
        destruct U as [(Ex & Eu)|[(U1 & U2 & U3 & U4)|(U1 & U2 & U3)]].
        -- left. assert (ue = nlen ser1) as E by (subst ser1 x; rewrite app_nil_r; exact Eu).
           split; [exact E|]. split; [lia|].
           destruct Hh as [(_ & Eh & ->)|(Hne & H58 & _ & _)].
           ++ assert (nlen ser2 = ue) as E2 by (rewrite L2, Eh; cbn [ptext]; rewrite nlen_nil; lia).
              rewrite E2 in Hps. destruct Hps as [Hps|Hps]; [apply byte_eqb_oob; lia|].
              apply byte_eqb_false_of. congruence.
           ++ destruct (hd h) as [|c t] eqn:Ehd; [contradiction|].
              apply byte_eqb_false_of. rewrite Hb by (rewrite L2, nlen_cons; lia).
              subst ser2. rewrite E. rewrite nnth_app_ge by lia. rewrite N.sub_diag. cbn [app].
              change (nnth (c :: t ++ ptext pt) 0) with (Some c). cbn in H58. congruence.
        -- right. left. split; [|split; [lia|]]; apply byte_eqb_true_iff.
           ++ rewrite Hb, Hb1 by lia. exact U2.
           ++ rewrite Hb, Hb1 by lia. exact U4.
        -- right. right. split; [|lia]. apply byte_eqb_true_iff. rewrite Hb, Hb1 by lia. exact U2.
      * intros Hn. apply hi_none_empty in Hn. subst h.
        destruct Hh as [(_ & Eh & _)|(Hne & _)]; [rewrite Eh, nlen_nil; lia|].
        destruct HW as (_ & _ & W3). rewrite W3 in Hne. contradiction.
      * unfold port_ok. urec. destruct pt as [p|]; cbn [ptext] in *; [|rewrite nlen_nil in L2; lia].
        rewrite nlen_cons in L2.
        assert (ser2 = ((ser1 ++ hd h) ++ [58]) ++ decimal p) as E2 by (subst ser2; rewrite <- !app_assoc; reflexivity).
        split; [|split; [lia|split; [exact P|]]].
        -- apply byte_eqb_true_iff. rewrite Hb by lia. rewrite E2, <- app_assoc. cbn [app].
           rewrite <- nlen_app. apply byte_eqb_true_iff. apply byte_eqb_app.
        -- rewrite (pre_piece _ _ _ _ _ Hpre) by lia. rewrite E2.
           replace (nlen ser1 + nlen (hd h) + 1) with (nlen ((ser1 ++ hd h) ++ [58])) by (rewrite !nlen_app; reflexivity).
           rewrite nskipn_app_len. apply nfirstn_all. rewrite <- E2, L2, !nlen_app. change (nlen [58]) with 1. lia.
    + destruct Hps as [Hps|Hps]; [left; lia | right; exact Hps].
Qed.

(* the authority state: "scheme://" userinfo host [":" port] and a path that is empty or starts with '/' (it starts
   with '/' for a special scheme), handed to with_query_and_fragment; the port is not the default of the scheme *)
Lemma ads_shape dbg ovr st se ser0 l u : st_is_file st = false -> nlen ser0 = se + 1 ->
  after_double_slash dbg hp hpo hd ovr CUrlParser st se ser0 l = POk u ->
  exists x ue h pt s3 rem,
    let ser1 := (ser0 ++ [47; 47]) ++ x in
    let ser2 := ser1 ++ hd h ++ ptext pt in
    ((x = [] /\ ue = nlen (ser0 ++ [47; 47]))
     \/ (nlen (ser0 ++ [47; 47]) <= ue /\ nnth ser1 ue = Some 58 /\ ue + 2 <= nlen ser1 /\ nnth ser1 (nlen ser1 - 1) = Some 64)
     \/ (nlen (ser0 ++ [47; 47]) <= ue /\ nnth ser1 ue = Some 64 /\ nlen ser1 = ue + 1))
    /\ match pt with Some p => p <= 65535 /\ default_port (nfirstn se ser0) <> Some p | None => True end
    /\ ((h = HDomain [] /\ hd h = [] /\ pt = None /\ st_is_special st = false) \/ host_text_wf (hd h))
    /\ agree_pre (nlen ser2) ser2 s3 /\ nlen ser2 <= nlen s3
    /\ (nlen s3 = nlen ser2 \/ nnth s3 (nlen ser2) = Some 47)
    /\ (st_is_special st = true -> nnth s3 (nlen ser2) = Some 47)
    /\ forallb no_qh (nskipn (nlen ser2) s3) = true
    /\ nlen ser1 = se + 3 + nlen x /\ nnth s3 (se + 2) = Some 47
    /\ with_query_and_fragment ovr CUrlParser st se ue (nlen ser1) (nlen ser1 + nlen (hd h)) (hi_of_host h) pt
         (nlen ser2) s3 rem = POk u.
Proof using HW.
  intros Hnf L0. unfold after_double_slash.
  destruct (parse_userinfo st (ser0 ++ [47; 47]) l) as [[[ser1 ue] rm]| |] eqn:Eu; cbn [pbind]; try discriminate.
  destruct (parse_userinfo_shape _ _ _ _ _ _ Eu) as (x & -> & U).
  du32 (nlen ((ser0 ++ [47; 47]) ++ x)) hs Ehs. apply to_u32_inv in Ehs. destruct Ehs as [-> _].
  destruct (parse_host_and_port hp hpo hd CUrlParser st se ((ser0 ++ [47; 47]) ++ x) rm)
    as [[[[[ser2 he] hi] pt] rm2]| |] eqn:Eh; cbn [pbind]; try discriminate.
  assert (forall p, pt = Some p -> default_port (nfirstn se ser0) <> Some p) as Hpt.
  { intros p ->. revert Eh. unfold parse_host_and_port. intros H. pb H a Ha. destruct a as [host remaining]. cbv zeta in H.
    pb H he' Hhe. pb H y Hy. destruct (inp_split_prefix_char 58 remaining) as [rm'|]; [|inversion H].
    pb H b Hb. destruct b as [pt' rem2]. inversion H; subst. apply parse_port_pn in Hb.
    rewrite <- !app_assoc in Hb. rewrite nfirstn_app_le in Hb by lia. exact Hb. }
  destruct (phap_shape hp hpo hd HW _ _ _ _ _ _ _ _ _ Hnf Eh) as (h & -> & -> & -> & Hp & Hh).
  match goal with |- (if ?c then _ else _) = _ -> _ => destruct c; [discriminate|] end.
  du32 (nlen (((ser0 ++ [47; 47]) ++ x) ++ hd h ++ ptext pt)) ps Eps. apply to_u32_inv in Eps. destruct Eps as [-> _].
  destruct (parse_path_start dbg CUrlParser st true (((ser0 ++ [47; 47]) ++ x) ++ hd h ++ ptext pt) rm2)
    as [[[s3 hh] rm3]| |] eqn:Ep; cbn [pbind]; try discriminate.
  assert (st_is_special st = true -> ends_with_byte 47 (((ser0 ++ [47; 47]) ++ x) ++ hd h ++ ptext pt) = false) as He.
  { intros Esp. destruct Hh as [(_ & _ & _ & Hns)|(Hne & _ & _ & H47)]; [congruence|].
    destruct pt as [p|]; cbn [ptext].
    - rewrite app_assoc. apply port_text_last.
    - rewrite app_nil_r. rewrite ends_with_byte_app by exact Hne. exact H47. }
  destruct (parse_path_start_shape dbg st true _ rm2 s3 hh rm3 Hnf He Ep) as (A & B & C & C' & D & _).
  intros H. exists x, ue, h, pt, s3, rm3. cbv zeta.
  split; [exact U|]. split; [destruct pt as [p|]; [split; [exact Hp | exact (Hpt p eq_refl)] | exact I]|].
  repeat (split; [assumption|]).
  assert (nlen ((ser0 ++ [47; 47]) ++ x) = se + 3 + nlen x) as L1 by (rewrite !nlen_app, L0; change (nlen [47; 47]) with 2; lia).
  split; [exact L1|]. split; [|exact H].
  rewrite (pre_nnth _ _ _ _ A) by (rewrite nlen_app; lia).
  rewrite <- !app_assoc. rewrite nnth_app_ge by lia. replace (se + 2 - nlen ser0) with 1 by lia. reflexivity.
Qed.

Theorem ads_wf dbg ovr st se ser0 l u : st_is_file st = false -> scheme_pre_ok se ser0 ->
  after_double_slash dbg hp hpo hd ovr CUrlParser st se ser0 l = POk u -> wf_b u = true /\ host_text_ok u.
Proof using HW.
  intros Hnf Hs H.
  destruct (ads_shape dbg ovr st se ser0 l u Hnf (proj2 (proj2 (proj2 (proj2 Hs)))) H)
    as (x & ue & h & pt & s3 & rem & U & Hp & Hh & A & B & C & _ & D & _ & _ & Hw).
  apply (wqf_wf ovr st (mkUrl s3 se ue (nlen ((ser0 ++ [47; 47]) ++ x)) (nlen ((ser0 ++ [47; 47]) ++ x) + nlen (hd h))
                           (hi_of_host h) pt (nlen (((ser0 ++ [47; 47]) ++ x) ++ hd h ++ ptext pt)) None None) rem u);
    [|reflexivity|reflexivity|exact Hw].
  apply auth_front_ok; try assumption.
  - destruct pt; [exact (proj1 Hp) | exact I].
  - destruct Hh as [(H1 & H2 & H3 & _)|Hh]; [left; repeat split; assumption | right; exact Hh].
Qed.
End Ads.

(* E. no authority: "scheme:/path" and "scheme:opaque" *)
Lemma scheme_out_is_scheme_char c : scheme_out_char c = true -> scheme_char c = true.
Proof. unfold scheme_out_char, scheme_char, is_alnum, is_alpha, is_lower, is_upper, is_digit. lia. Qed.

Lemma scheme_pre_of_canon sch : scheme_canon sch = true -> scheme_pre_ok (nlen sch) (sch ++ [58]).
Proof.
  unfold scheme_canon. intros H. apply andb_true_iff in H. destruct H as [H1 H2].
  destruct sch as [|c r]; [discriminate|]. unfold scheme_pre_ok.
  split; [rewrite nlen_cons; lia|]. split; [|split; [|split]].
  - exists c. split; [reflexivity|]. unfold is_alpha. rewrite H1. apply orb_true_r.
  - rewrite nfirstn_app_exact. apply (forallb_impl scheme_out_char scheme_char); [exact scheme_out_is_scheme_char | exact H2].
  - apply nnth_last.
  - rewrite nlen_app. reflexivity.
Qed.

Lemma noauth_front_ok se ser0 s1 : scheme_pre_ok se ser0 -> agree_pre (se + 1) ser0 s1 -> se + 1 <= nlen s1 ->
  forallb no_qh (nskipn (se + 1) s1) = true ->
  front_ok (mkUrl s1 se (se + 1) (se + 1) (se + 1) HI_None None (se + 1) None None).
Proof.
  intros (S1 & (c0 & Sc & Sa) & S3 & S4 & S5) Hpre Hl Hq. unfold front_ok. urec.
  split; [|split; [exact Hl|split; [exact Hq|split; [apply ht_none; reflexivity|]]]].
  - unfold scheme_ok. urec. split; [exact S1|]. split; [|split].
    + exists c0. split; [|exact Sa]. rewrite (pre_nnth _ _ _ 0 Hpre) by lia. exact Sc.
    + rewrite (pre_firstn _ _ _ se Hpre) by lia. exact S3.
    + apply byte_eqb_true_iff. rewrite (pre_nnth _ _ _ se Hpre) by lia. exact S4.
  - right. repeat split. left. reflexivity.
Qed.

(* F. relative references *)
Lemma auth_ok_pre2 a u u' : agree_pre a (ser u) (ser u') -> path_start u <= a -> a <= nlen (ser u') ->
  scheme_end u' = scheme_end u -> username_end u' = username_end u -> host_start u' = host_start u ->
  host_end u' = host_end u -> hosti u' = hosti u -> port u' = port u -> path_start u' = path_start u ->
  (username_end u < a \/ byte_eqb (ser u') (username_end u) 58 = false) ->
  auth_ok u -> auth_ok u'.
Proof.
  intros H Hps Hlen E1 E2 E3 E4 E5 E6 E7 Hue (A1 & A2 & A3 & A4 & A5 & U & Hn & P).
  unfold auth_ok, userinfo_ok, port_ok. rewrite E1, E2, E3, E4, E5, E6, E7.
  repeat split; try assumption; try lia.
  - destruct U as [(U1 & U2 & U3)|[(U1 & U2 & U3)|(U1 & U2)]].
    + left. repeat split; try assumption. destruct Hue as [Hue|Hue]; [|exact Hue].
      rewrite (pre_byte_eqb a _ _ _ _ H) by lia. exact U3.
    + right. left. rewrite !(pre_byte_eqb a _ _ _ _ H) by lia. tauto.
    + right. right. pose proof (byte_eqb_lt _ _ _ U1). rewrite !(pre_byte_eqb a _ _ _ _ H) by lia. tauto.
  - unfold port_ok in P. destruct (port u) as [p|]; [|exact P].
    destruct P as (P1 & P2 & P3 & P4).
    assert (host_end u < a) as Hhe by (pose proof (byte_eqb_lt _ _ _ P1); lia).
    rewrite (pre_byte_eqb a _ _ _ _ H) by lia.
    rewrite (pre_piece a _ _ _ _ H) by lia. tauto.
Qed.

(* a new path behind the front of a well-formed base *)
Lemma base_front_ok b s : wf_b b = true -> host_text_ok b -> agree_pre (path_start b) (ser b) s -> nnth s (path_start b) = Some 47 ->
  forallb no_qh (nskipn (path_start b) s) = true ->
  front_ok (url_with b s None None).
Proof.
  intros W HT Hpre H47 Hq. pose proof (wf_se_lt_ps b W) as Hse. pose proof (nnth_lt _ _ _ H47) as Hl.
  pose proof W as W0. apply wf_b_iff in W0. destruct W0 as (S & AU & _).
  unfold front_ok, url_with. urec. split; [|split; [lia|split; [exact Hq|split]]].
  - apply (scheme_ok_pre (path_start b) b); [exact Hpre | exact Hse | reflexivity | exact S].
  - intros Hh. pose proof (HT Hh) as (T1 & _). pose proof (wf_host_range b W T1) as R. revert Hh.
    apply (ht_pre (path_start b) b); try reflexivity; [exact Hpre | exact R | exact HT].
  - destruct (has_authority_b b) eqn:Ha.
    + left. destruct AU as [AU _]. pose proof (wf_auth_facts b W Ha) as F.
      pose proof (af_ue F); pose proof (af_hs F); pose proof (af_he F); pose proof (af_ps F).
      split; [|split; [|right; exact H47]].
      * rewrite <- Ha. apply (has_authority_b_pre (path_start b)); [exact Hpre | lia | reflexivity].
      * assert (username_end b < path_start b \/ byte_eqb s (username_end b) 58 = false) as Hue.
        { destruct (N.eq_dec (username_end b) (path_start b)) as [E|E]; [|left; lia].
          right. rewrite E. apply byte_eqb_false_of. congruence. }
        exact (auth_ok_pre2 (path_start b) b
                 (mkUrl s (scheme_end b) (username_end b) (host_start b) (host_end b) (hosti b) (port b) (path_start b) None None)
                 Hpre (N.le_refl _) ltac:(urec; lia) eq_refl eq_refl eq_refl eq_refl eq_refl eq_refl eq_refl Hue AU).
    + right. pose proof (wf_noauth_facts b W Ha) as F.
      split; [exact (nf_ue F)|]. split; [exact (nf_hs F)|]. split; [exact (nf_he F)|].
      split; [exact (nf_host F)|]. split; [exact (nf_port F)|].
      destruct (nf_ps F) as [P|(P1 & P2 & P3 & _)]; [left; exact P|]. right.
      apply byte_eqb_nnth in P2. apply byte_eqb_nnth in P3.
      split; [exact P1|]. rewrite !(pre_nnth _ _ _ _ Hpre) by lia. split; assumption.
Qed.

(* the base without its fragment, and without query and fragment *)
Lemma base_cut_fragment_wf b : wf_b b = true -> wf_b (url_with b (b_before_fragment b) (query_start b) None) = true
  /\ fragment_start (url_with b (b_before_fragment b) (query_start b) None) = None.
Proof.
  intros W. split; [|reflexivity]. unfold b_before_fragment. destruct (fragment_start b) as [f|] eqn:Ef.
  - destruct (cut_fragment_step false b f W Ef) as (W' & _). exact W'.
  - destruct b as [s se ue hs he hi pt ps qs fs]. cbn in *. subst fs. exact W.
Qed.

(* a serialization that keeps everything up to the end of the path keeps the host text *)
Lemma base_ht b s qs fs : wf_b b = true -> host_text_ok b -> agree_pre (path_start b) (ser b) s ->
  host_text_ok (url_with b s qs fs).
Proof.
  intros W HT Hpre Hh. pose proof (HT Hh) as (T1 & _). pose proof (wf_host_range b W T1) as R. revert Hh.
  apply (ht_pre (path_start b) b); try reflexivity; [exact Hpre | exact R | exact HT].
Qed.

Lemma bf_pre b : wf_b b = true -> agree_pre (path_start b) (ser b) (b_before_fragment b).
Proof.
  intros W. unfold b_before_fragment. pose proof (wf_qf_facts b W) as QF. pose proof (qf_f QF) as Q2.
  destruct (fragment_start b) as [f|]; [|reflexivity]. apply agree_pre_nfirstn_ge. lia.
Qed.

Lemma bq_pre b : wf_b b = true -> agree_pre (path_start b) (ser b) (b_before_query b).
Proof.
  intros W. destruct (bq_shape b W) as (-> & P1 & _). apply agree_pre_nfirstn_ge. exact P1.
Qed.

Lemma base_cut_query_wf b : wf_b b = true -> wf_b (url_with b (b_before_query b) None None) = true.
Proof.
  intros W. destruct (bq_shape b W) as (Ebq & P1 & P2). rewrite Ebq.
  pose proof (qf_facts_of b W) as (_ & _ & _ & Q4 & _).
  apply (tail_wf b (url_with b (nfirstn (path_end b) (ser b)) None None) (path_end b)); try assumption.
  - repeat split.
  - unfold url_with. urec. apply agree_pre_trunc.
  - intros E1 E3. assert (has_authority_b b = false) as Ha.
    { destruct (has_authority_b b) eqn:Ha; [|reflexivity]. pose proof (wf_auth_facts b W Ha) as F. pose proof (af_ue F). lia. }
    exact (wf_marker_in_path b W Ha E3).
  - unfold url_with. urec. rewrite nlen_nfirstn by exact P2. lia.
  - left. unfold url_with. urec. rewrite nlen_nfirstn by exact P2. reflexivity.
  - unfold qf_ok, path_end, url_with. urec. repeat split.
    rewrite nlen_nfirstn by exact P2. fold (path_end b).
    replace (path_end b) with (path_start b + (path_end b - path_start b)) at 2 by lia.
    rewrite nskipn_nfirstn_comm. rewrite nfirstn_nfirstn by lia. exact Q4.
Qed.

Lemma fragment_only_wf b l u : wf_b b = true -> host_text_ok b -> fragment_only b l = POk u ->
  wf_b u = true /\ host_text_ok u.
Proof.
  intros W HT. unfold fragment_only. du32 (nlen (b_before_fragment b)) fs E. apply to_u32_inv in E. destruct E as [-> _].
  intros H. inversion H; subst u. destruct (base_cut_fragment_wf b W) as [W1 F1].
  rewrite parse_fragment_text. rewrite <- app_assoc. cbn [app].
  destruct (add_fragment_step false _ (tnl_text T_FRAGMENT match inp_next l with Some (_, r) => r | None => [] end) W1 F1) as (W2 & _).
  split; [exact W2|].
  apply (base_ht b _ (query_start b) (Some (nlen (b_before_fragment b))) W HT).
  eapply agree_pre_trans; [apply (bf_pre b W)|]. apply agree_pre_app_le.
  pose proof (pre_len _ _ _ (bf_pre b W) (path_start_le_len b W)). lia.
Qed.

Section Top.
Variable hp hpo : list N -> result host.

(* the path-relative arm: the base path without its last segment *)
Lemma pop_base_shape st b (l : list N) s1 : wf_b b = true -> st_is_file st = false ->
  nnth (ser b) (scheme_end b + 1) = Some 47 -> inp_is_empty l = false ->
  pop_path st (path_start b) (b_before_query b) = POk s1 ->
  let s2 := if (nlen s1 =? path_start b) && (st_is_special (scheme_type_of (b_scheme b)) || negb (inp_is_empty l))
            then s1 ++ [47] else s1 in
  agree_pre (path_start b) (ser b) s2 /\ path_start b + 1 <= nlen s2 /\ nnth s2 (path_start b) = Some 47
  /\ forallb no_qh (nskipn (path_start b) s2) = true.
Proof using hp hpo.
  intros W Hnf Hs He Hpop s2.
  destruct (pop_base_ok hp hpo st b l W Hnf Hs He) as (s1' & Epop & I2 & H2). cbv zeta in I2, H2.
  rewrite Hpop in Epop. inversion Epop; subst s1'. fold s2 in I2, H2.
  destruct (bq_shape b W) as (Ebq & P1 & P2). pose proof (path_start_le_len b W) as PL.
  pose proof (qf_facts_of b W) as (_ & _ & _ & Q4 & _).
  assert (nlen (nfirstn (path_start b) (ser b)) = path_start b) as Lp by (apply nlen_nfirstn; exact PL).
  assert (PInv (path_start b) (path_start b) (nfirstn (path_start b) (ser b)) (b_before_query b)) as I0.
  { rewrite Ebq. split; [apply nfirstn_nfirstn; exact P1|].
    replace (path_end b) with (path_start b + (path_end b - path_start b)) by lia.
    rewrite nskipn_nfirstn_comm. exact Q4. }
  pose proof (pinv_pop_path (path_start b) (path_start b) (nfirstn (path_start b) (ser b)) (N.le_refl _) ltac:(lia) Lp st _ _ Hpop I0) as I1.
  assert (PInv (path_start b) (path_start b) (nfirstn (path_start b) (ser b)) s2) as Is2.
  { subst s2. destruct ((nlen s1 =? path_start b) && _); [|exact I1].
    apply (pinv_app (path_start b) (path_start b) (nfirstn (path_start b) (ser b)) (N.le_refl _) ltac:(lia) Lp); [exact I1 | reflexivity]. }
  destruct Is2 as [J1 J2]. destruct I2 as (_ & K2 & _ & K4 & _).
  split; [exact J1|]. split; [lia|]. split; [exact H2 | exact J2].
Qed.

End Top.
