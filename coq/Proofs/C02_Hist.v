(* Proofs/C02_Hist.v - the quantifier Reachable2 and the host hypothesis HostOK2 of C02_statement.
   The host hypothesis.  HostOK of C02_Reach.v cannot be met by url::Host (it asks hp [] = Ok (HDomain []) while
        Host::parse("") is Err(EmptyHost), and hpo (hd h) = Ok h for IPv4 values while Host::parse_opaque reads dotted
        decimal text as an opaque host); it also lacks host_above.  HostOK2 = HostRT /\ host_above /\ the IP clause
        restricted to what is true of url::Host.  Theorems of other properties refute HostOK for the host model
        (C09_host_records_refuted).
   F-C02-9: set_ip_host with an IPv4 address on a URL whose scheme is not special is not a fixpoint
        of re-parsing (host kind Ipv4 vs Domain).  Known_F_C02_9, known_step2, Reachable2 and C02_statement over
        them (false: C02_Reach4.statement_refuted; C02_Stmt4 restricts the steps once more). *)
From Coq Require Import String.
From RU Require Import Base.Prelude Base.Utf8 Base.Utf8Facts Model.AsciiSet Gen.Tables
  Model.PercentEncoding Model.HostT Model.UrlRecord Model.Parser Model.Setters Model.WF
  Proofs.ListN Proofs.C02_Reach Proofs.C02_AuthParts Proofs.C02_AuthMain.
Open Scope N_scope.
Open Scope list_scope.

(* the values Url::set_ip_host can be given are displayed as host texts that Host::parse reads back; for an
   IPv6 value Host::parse_opaque reads it back too (for an IPv4 value it does NOT: F-C02-9) *)
Definition ip_clause (hp hpo : list N -> result host) (hd : host -> list N) : Prop :=
  forall h, op_args_ok (OSetIpHost h) ->
    host_text_ok (hd h) /\ hp (hd h) = Ok h /\ (forall ps, h = HIpv6 ps -> hpo (hd h) = Ok h).

Definition HostOK2 (hp hpo : list N -> result host) (hd : host -> list N) : Prop :=
  HostRT hp hpo hd /\ host_above hp hpo hd /\ ip_clause hp hpo hd.

(* HostOK is refuted by each of two facts about the host functions, both true of url::Host
   (C09_Inst.host_parse_nil_refuted, C09_Inst.opaque_ipv4_refuted) *)
Lemma HostOK_old_unsat hp hpo hd :
  hp [] <> Ok (HDomain []) \/ (exists a, a < 4294967296 /\ hpo (hd (HIpv4 a)) <> Ok (HIpv4 a)) ->
  ~ HostOK hp hpo hd.
Proof.
  intros [H|(a & Ha & H)] (_ & _ & H3 & _ & H5 & _).
  - exact (H H5).
  - apply H. exact (proj2 (proj2 (H3 (HIpv4 a) Ha))).
Qed.

(* HostRT, the parsing clauses, is what HostOK and HostOK2 share *)
Lemma HostOK_old_RT_only hp hpo hd : HostOK hp hpo hd -> HostRT hp hpo hd.
Proof. exact (HostOK_RT hp hpo hd). Qed.

(* HostOK together with host_above implies HostOK2 *)
Lemma HostOK_old_implies_new hp hpo hd : HostOK hp hpo hd -> host_above hp hpo hd -> HostOK2 hp hpo hd.
Proof.
  intros HOK HAb. split; [exact (HostOK_RT _ _ _ HOK)|]. split; [exact HAb|].
  destruct HOK as (_ & _ & H3 & _). intros h Hh. destruct (H3 h Hh) as (T & P & Po).
  split; [exact T|]. split; [exact P|]. intros ps _. exact Po.
Qed.

(* F-C02-9.  set_ip_host with an IPv4 address on a URL whose scheme is not special: the non-special authority state
   parses hosts with Host::parse_opaque, which has no IPv4 arm *)
Definition Known_F_C02_9 (u : url) (o : op) : bool :=
  match o with
  | OSetIpHost (HIpv4 _) => negb (st_is_special (scheme_type_of (scheme_of u)))
  | _ => false
  end.

Section Reach2.
Variable dbg : bool.
Variable hp hpo : list N -> result host.
Variable hd : host -> list N.

Definition known_step2 (u : url) (o : op) : bool := known_step dbg hp hpo hd u o || Known_F_C02_9 u o.

(* every known class consists of steps with a host or a path setter *)
Lemma known_step2_host_or_path u o : is_host_or_path_op o = false -> known_step2 u o = false.
Proof.
  destruct o; try discriminate; intros _;
    unfold known_step2, known_step, Known_F_C03_5, Known_F_C02_3, Known_F_C02_2, Known_F_C02_8, Known_F_C02_4, Known_F_C02_9;
    cbn [is_host_or_path_op]; rewrite ?andb_false_r; reflexivity.
Qed.

Inductive Reachable2 : url -> Prop :=
| R2_parse ovr input u :
    usv_list input -> parse_url dbg hp hpo hd ovr None input = POk u ->
    Known_file_drive u = false -> Reachable2 u
| R2_join ovr b input u :
    Reachable2 b -> usv_list input -> parse_url dbg hp hpo hd ovr (Some b) input = POk u ->
    Known_file_drive u = false -> Reachable2 u
| R2_step u o u' :
    Reachable2 u -> op_args_ok o -> known_step2 u o = false -> apply_op dbg hp hpo hd u o = Some u' ->
    Known_file_drive u' = false -> Reachable2 u'.

(* Reachable2 is a restriction of Reachable *)
Lemma Reachable2_old u : Reachable2 u -> Reachable dbg hp hpo hd u.
Proof.
  induction 1 as [ovr input u Hu Hp Hk | ovr b input u Hb IH Hu Hp Hk | u o u' Hr IH Ha Hk Ho Hk'].
  - exact (R_parse dbg hp hpo hd ovr input u Hu Hp Hk).
  - exact (R_join dbg hp hpo hd ovr b input u IH Hu Hp Hk).
  - apply (R_step dbg hp hpo hd u o u' IH Ha); [|exact Ho | exact Hk'].
    unfold known_step2 in Hk. apply orb_false_iff in Hk. exact (proj1 Hk).
Qed.
End Reach2.

Definition C02_statement : Prop :=
  forall dbg hp hpo hd, HostOK2 hp hpo hd ->
  forall u, Reachable2 dbg hp hpo hd u -> Fixpoint_of_reparse dbg hp hpo hd u.

(* the witness, with host functions that know IPv4 only through set_ip_host:
   toy_hp reads every text as a domain (as Host::parse_opaque does for dotted decimal text), toy_hd
   displays every IPv4 value as 127.0.0.1: a://x/ -> set_ip_host(127.0.0.1) -> a://127.0.0.1/ with the host
   kind Ipv4; the text re-parses with the host kind Domain *)
Lemma F_C02_9_refuted :
  witness_step Known_F_C02_9 "a://x/" (OSetIpHost (HIpv4 2130706433)) "a://127.0.0.1/" = true
  /\ match toy_parse "a://x/" with
     | POk u => negb (known_step true toy_hp toy_hp toy_hd u (OSetIpHost (HIpv4 2130706433)))
                && match toy_apply u (OSetIpHost (HIpv4 2130706433)) with
                   | Some u' => hi_eqb (hosti u') (HI_Ipv4 2130706433)
                                && match toy_reparse u' with
                                   | POk v => list_eqb (ser v) (ser u') && hi_eqb (hosti v) HI_Domain
                                   | _ => false
                                   end
                   | None => false
                   end
     | _ => false
     end = true.
Proof. vm_compute. split; reflexivity. Qed.

(* the class is tight on the scheme side: on a special URL the step is outside the class *)
Example F_C02_9_class :
  match toy_parse "http://x/" with POk u => Known_F_C02_9 u (OSetIpHost (HIpv4 2130706433)) | _ => true end = false
  /\ match toy_parse "a://x/" with POk u => Known_F_C02_9 u (OSetIpHost (HIpv6 [0;0;0;0;0;0;0;1])) | _ => true end = false
  /\ match toy_parse "a://x/" with POk u => Known_F_C02_9 u (OSetIpHost (HIpv4 1)) | _ => false end = true.
Proof. vm_compute. repeat split. Qed.

(* the parse classes under HostOK2 (the statements under HostOK in C02_AuthMain.v have a hypothesis without an
   instance; these hold of the host model, C02_HistInst.HostOK2_model) *)
Theorem reparse_auth_HostOK2 dbg hp hpo hd ovr input u :
  HostOK2 hp hpo hd -> usv_list input -> auth_input input = true ->
  parse_url dbg hp hpo hd ovr None input = POk u ->
  Fixpoint_of_reparse dbg hp hpo hd u /\ wf_b u = true /\ canon_auth hp hpo hd STNotSpecial u.
Proof.
  intros (HRT & HAb & _) Hu Hc Hp.
  destruct (L1_auth dbg hp hpo hd HRT ovr input u HAb Hu Hc Hp) as (C & W & _).
  split; [exact (L3_auth dbg hp hpo hd HRT u C) | split; assumption].
Qed.

Theorem reparse_special_HostOK2 dbg hp hpo hd input u :
  HostOK2 hp hpo hd -> usv_list input -> special_input input = true ->
  parse_url dbg hp hpo hd None None input = POk u ->
  Fixpoint_of_reparse dbg hp hpo hd u /\ wf_b u = true /\ canon_special hp hpo hd u.
Proof.
  intros (HRT & HAb & _) Hu Hc Hp.
  destruct (L1_special dbg hp hpo hd HRT input u HAb Hu Hc Hp) as (C & W & _).
  split; [exact (L3_special dbg hp hpo hd HRT u C) | split; assumption].
Qed.

Theorem reparse_nonfile_HostOK2 dbg hp hpo hd input u :
  HostOK2 hp hpo hd -> usv_list input -> nonfile_input input = true ->
  parse_url dbg hp hpo hd None None input = POk u ->
  Fixpoint_of_reparse dbg hp hpo hd u /\ wf_b u = true /\ ascii (ser u).
Proof. intros (HRT & HAb & _). exact (reparse_nonfile dbg hp hpo hd input u HRT HAb). Qed.
