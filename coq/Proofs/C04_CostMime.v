(* Proofs/C04_CostMime.v - cost of MIME type parsing (data-url/src/mime.rs parse / parse_parameters), outside and inside
   finding F-C04-9.
   Cost semantics as in Model/Cost.v (a forward scan / a copy of x = nlen x steps, one step per loop iteration).  The
   twin is defined over the panic-free reading p_params_loop of Proofs/C19_Pure.v (equal to the model on a &str:
   params_loop_spec).  Per piece of the ';'-separated input:
     five passes over the piece (trim_start, splitn on '=', the token test of the name, valid_value, the lower-case
     copy of the name / the copy of the value), two steps of bookkeeping,
     contains(parameters, name) - evaluated only for a non-empty token name: for every parameter collected so far one
     step, plus the length of the name when the lengths agree (eq_ignore_ascii_case compares lengths first),
     the quoted-string scanner: the characters of the pieces it takes from the shared iterator, twice (examined, pushed).
   RESULT: cost <= (14 + P) * (|input| + 1) + 4 where P is the number of parameters of the RESULT - linear for a bounded
   number of accepted parameters; the product term is finding F-C04-9 (n distinct names: at least n(n-1)/2 steps). *)
From RU Require Import Base.Prelude Base.Utf8 Base.Utf8Facts Gen.Tables Model.HostT Model.UrlRecord Proofs.ListN.
From RU Require Import Model.Mime Proofs.C19_Tables Proofs.C19_Pure.

(* ---------------------------------------------------------------- definitions *)
Definition plen (ps : plist) : N := N.of_nat (length ps).
Lemma plen_cons p ps : plen (p :: ps) = 1 + plen ps.
Proof. unfold plen. cbn [length]. lia. Qed.
Lemma plen_app a b : plen (a ++ b) = plen a + plen b.
Proof. unfold plen. rewrite app_length. lia. Qed.
Definition contains_cost (parameters : plist) (name : list N) : N :=
  fold_right (fun p acc => 1 + (if nlen (fst p) =? nlen name then nlen name else 0) + acc) 0 parameters.

(* what the ';'-iterator still holds: every piece and its separator *)
Definition size (pieces : list (list N)) : N := fold_right (fun p acc => nlen p + 1 + acc) 0 pieces.

Fixpoint p_params_cost (fuel : nat) (pieces : list (list N)) (parameters : plist) : N :=
  match fuel with
  | O => 0
  | S fuel' =>
    match pieces with
    | [] => 1
    | piece :: rest =>
      let (name, value) := split_once 61 (trim_start piece) in
      let name_ok := p_name_valid parameters name in
      let c0 := 2 + 5 * nlen piece
                + (if negb (is_empty name) && tokens name then contains_cost parameters name else 0) in
      match value with
      | None => c0 + p_params_cost fuel' rest parameters
      | Some value =>
        match strip_prefix_quote value with
        | Some stripped =>
            let (unescaped_value, rest') := scan_quoted rest stripped [] in
            let cq := 2 * (size rest - size rest') in
            if negb name_ok || negb (valid_value value) then c0 + cq + p_params_cost fuel' rest' parameters
            else c0 + cq + p_params_cost fuel' rest' (parameters ++ [(to_ascii_lowercase name, unescaped_value)])
        | None =>
            let value := trim_end value in
            if is_empty value then c0 + p_params_cost fuel' rest parameters
            else if negb name_ok || negb (valid_value value) then c0 + p_params_cost fuel' rest parameters
            else c0 + p_params_cost fuel' rest (parameters ++ [(to_ascii_lowercase name, value)])
        end
      end
    end
  end.

Definition parse_parameters_cost (s : list N) (parameters : plist) : N :=
  let (p, ps) := split_all 59 s in
  nlen s + 1 + p_params_cost (S (S (length ps))) (p :: ps) parameters.

(* parse: trim_matches (two scans), splitn on '/', token test and lower-case copy of the type, splitn on ';',
   trim_end / token test / lower-case copy of the subtype - at most six passes over the input - then the parameters *)
Definition mime_parse_cost (s : list N) : N :=
  6 * nlen s + 3
  + match snd (split_once 47 (trim_matches s)) with
    | Some rest => match snd (split_once 59 rest) with
                   | Some rest' => parse_parameters_cost rest' []
                   | None => 0
                   end
    | None => 0
    end.

(* ---------------------------------------------------------------- lengths *)
Lemma trim_start_len s : nlen (trim_start s) <= nlen s.
Proof.
  induction s as [|c s IH]; cbn [trim_start]; [lia|]. destruct (http_whitespace c); [rewrite nlen_cons; lia | lia].
Qed.

Lemma trim_end_len s : nlen (trim_end s) <= nlen s.
Proof.
  induction s as [|c s IH]; cbn [trim_end]; [lia|]. rewrite nlen_cons. destruct (trim_end s) as [|x r].
  - destruct (http_whitespace c); cbn; lia.
  - rewrite !nlen_cons in *. lia.
Qed.

Lemma split_once_len sep s :
  nlen (fst (split_once sep s)) <= nlen s
  /\ match snd (split_once sep s) with Some b => nlen (fst (split_once sep s)) + nlen b + 1 = nlen s | None => True end.
Proof.
  induction s as [|c s IH]; cbn [split_once]; [cbn; split; [lia|exact I]|]. rewrite nlen_cons. destruct (c =? sep).
  - cbn [fst snd]. change (nlen []) with 0. split; lia.
  - destruct (split_once sep s) as [a b]. cbn [fst snd] in *. rewrite nlen_cons. destruct IH as [H1 H2].
    split; [lia|]. destruct b; [lia|exact I].
Qed.

Lemma split_all_size sep s : size (fst (split_all sep s) :: snd (split_all sep s)) = nlen s + 1.
Proof.
  induction s as [|c s IH]; cbn [split_all]; [reflexivity|]. destruct (split_all sep s) as [p ps]. cbn [fst snd] in *.
  rewrite nlen_cons. cbn [size fold_right] in *. destruct (c =? sep); cbn [fst snd fold_right]; [change (nlen []) with 0 | rewrite nlen_cons]; lia.
Qed.

Lemma size_skipn k : forall l, size (skipn k l) <= size l.
Proof.
  induction k as [|k IH]; intros l; [cbn [skipn]; lia|]. destruct l as [|x r]; [cbn; lia|]. cbn [skipn].
  specialize (IH r). cbn [size fold_right]. fold (size r). lia.
Qed.

Lemma scan_quoted_size pieces chars acc : size (snd (scan_quoted pieces chars acc)) <= size pieces.
Proof. destruct (scan_quoted_facts pieces chars acc) as [w [k [E _]]]. rewrite E. cbn [snd]. apply size_skipn. Qed.

Lemma contains_cost_le parameters name : contains_cost parameters name <= plen parameters * (1 + nlen name).
Proof.
  induction parameters as [|p r IH]; [cbn; lia|]. cbn [contains_cost fold_right]. fold (contains_cost r name).
  rewrite plen_cons. destruct (nlen (fst p) =? nlen name); nia.
Qed.

Lemma contains_cost_ge parameters name : plen parameters <= contains_cost parameters name.
Proof.
  induction parameters as [|p r IH]; [cbn; lia|]. cbn [contains_cost fold_right]. fold (contains_cost r name).
  rewrite plen_cons. lia.
Qed.

(* ---------------------------------------------------------------- the bound *)
Lemma p_params_cost_le fuel : forall pieces parameters ps',
  p_params_loop fuel pieces parameters = Ok ps' ->
  plen parameters <= plen ps'
  /\ p_params_cost fuel pieces parameters <= (7 + plen ps') * size pieces + 1.
Proof.
  induction fuel as [|fuel IH]; intros pieces parameters ps' H; [discriminate|].
  cbn [p_params_loop p_params_cost] in *. destruct pieces as [|piece rest].
  - inversion H; subst. split; [lia|]. cbn. lia.
  - cbn [size fold_right]. fold (size rest).
    pose proof (split_once_len 61 (trim_start piece)) as [Hn _]. pose proof (trim_start_len piece) as Ht.
    destruct (split_once 61 (trim_start piece)) as [name value]. cbn [fst] in Hn. cbv zeta.
    set (cc := if negb (is_empty name) && tokens name then contains_cost parameters name else 0).
    assert (Hcc : cc <= plen parameters * (1 + nlen piece)).
    { unfold cc. destruct (negb (is_empty name) && tokens name); [|lia].
      pose proof (contains_cost_le parameters name). nia. }
    assert (Step : forall pieces2 params2, size pieces2 <= size rest -> plen parameters <= plen params2 ->
              forall extra, extra + (7 + plen ps') * size pieces2 <= (7 + plen ps') * size rest ->
              p_params_loop fuel pieces2 params2 = Ok ps' ->
              plen parameters <= plen ps'
              /\ 2 + 5 * nlen piece + cc + extra + p_params_cost fuel pieces2 params2
                 <= (7 + plen ps') * (nlen piece + 1 + size rest) + 1).
    { intros pieces2 params2 Hs Hp extra He H2. destruct (IH pieces2 params2 ps' H2) as [G1 G2]. split; [lia|].
      assert (plen parameters * (1 + nlen piece) <= plen ps' * (1 + nlen piece)) by nia. nia. }
    destruct value as [value|].
    + destruct (strip_prefix_quote value) as [stripped|].
      * pose proof (scan_quoted_size rest stripped []) as Hq.
        destruct (scan_quoted rest stripped []) as [u rest']. cbn [snd] in Hq.
        assert (He : 2 * (size rest - size rest') + (7 + plen ps') * size rest' <= (7 + plen ps') * size rest) by nia.
        destruct (negb (p_name_valid parameters name) || negb (valid_value value)).
        -- destruct (Step rest' parameters Hq ltac:(lia) _ He H) as [G1 G2]. split; [exact G1|lia].
        -- destruct (Step rest' (parameters ++ [(to_ascii_lowercase name, u)]) Hq ltac:(rewrite plen_app; lia) _ He H) as [G1 G2].
           split; [exact G1|lia].
      * assert (He : 0 + (7 + plen ps') * size rest <= (7 + plen ps') * size rest) by lia.
        destruct (is_empty (trim_end value)).
        -- destruct (Step rest parameters ltac:(lia) ltac:(lia) _ He H) as [G1 G2]. split; [exact G1|lia].
        -- destruct (negb (p_name_valid parameters name) || negb (valid_value (trim_end value))).
           ++ destruct (Step rest parameters ltac:(lia) ltac:(lia) _ He H) as [G1 G2]. split; [exact G1|lia].
           ++ destruct (Step rest (parameters ++ [(to_ascii_lowercase name, trim_end value)]) ltac:(lia) ltac:(rewrite plen_app; lia) _ He H) as [G1 G2].
              split; [exact G1|lia].
    + assert (He : 0 + (7 + plen ps') * size rest <= (7 + plen ps') * size rest) by lia.
      destruct (Step rest parameters ltac:(lia) ltac:(lia) _ He H) as [G1 G2]. split; [exact G1|lia].
Qed.

Lemma parse_parameters_cost_le s ps' : p_parse_parameters s [] = Ok ps' ->
  parse_parameters_cost s [] <= (8 + plen ps') * (nlen s + 1) + 1.
Proof.
  unfold p_parse_parameters, parse_parameters_cost. pose proof (split_all_size 59 s) as Hs.
  destruct (split_all 59 s) as [p ps]. cbn [fst snd] in Hs. intros H.
  destruct (p_params_cost_le _ _ _ _ H) as [_ G]. rewrite Hs in G. nia.
Qed.

(* MIME parsing of a &str: linear in the input times (14 + the number of parameters of the result) *)
Theorem mime_parse_cost_le s m : usv_list s -> parse s = Ok (Some m) ->
  mime_parse_cost s <= (14 + plen (m_params m)) * (nlen s + 1) + 4.
Proof.
  intros Hs. rewrite (parse_spec s Hs). unfold p_parse, mime_parse_cost. cbv zeta.
  pose proof (trim_start_len s) as T1. pose proof (trim_end_len (trim_start s)) as T2. fold (trim_matches s) in T2.
  pose proof (split_once_len 47 (trim_matches s)) as [A1 A2].
  destruct (split_once 47 (trim_matches s)) as [type_ rest]. cbn [fst snd] in *.
  destruct (negb (tokens type_ && negb (is_empty type_))); [discriminate|].
  destruct rest as [rest|]; [|discriminate].
  pose proof (split_once_len 59 rest) as [B1 B2].
  destruct (split_once 59 rest) as [subtype rest']. cbn [fst snd] in *.
  destruct (negb (tokens (trim_end subtype) && negb (is_empty (trim_end subtype)))); [discriminate|].
  destruct rest' as [rest'|].
  - destruct (p_parse_parameters rest' []) as [ps'| |] eqn:Ep; cbn [bind]; try discriminate.
    intros H. inversion H; subst. cbn [m_params]. pose proof (parse_parameters_cost_le rest' ps' Ep) as Hc.
    unfold trim_matches in *. assert (L : nlen rest' + 1 <= nlen s) by lia.
    assert ((8 + plen ps') * (nlen rest' + 1) <= (8 + plen ps') * nlen s) by (apply N.mul_le_mono_l; exact L). nia.
  - cbn [bind]. intros H. inversion H; subst. cbn [m_params]. change (plen []) with 0. lia.
Qed.

(* ---------------------------------------------------------------- finding F-C04-9, in the cost model *)
(* "a/b" followed by n parameters ";p<i>=1" with pairwise distinct names, and by n parameters ";a=1" *)
Fixpoint digits_rev (fuel : nat) (n : N) : list N :=
  match fuel with
  | O => []
  | S f => (48 + n mod 10) :: (if n / 10 =? 0 then [] else digits_rev f (n / 10))
  end.
Fixpoint distinct_params (n : nat) : list N :=
  match n with
  | O => []
  | S k => distinct_params k ++ [59; 112] ++ rev (digits_rev 10 (N.of_nat k)) ++ [61; 49]
  end.
Fixpoint same_params (n : nat) : list N :=
  match n with O => [] | S k => same_params k ++ [59; 97; 61; 49] end.
Definition mime_distinct (n : nat) : list N := [97; 47; 98] ++ distinct_params n.
Definition mime_same (n : nat) : list N := [97; 47; 98] ++ same_params n.

Definition n_params (s : list N) : N :=
  match parse s with Ok (Some m) => plen (m_params m) | _ => 0 end.

Lemma same_name_linear_50_100_200 :
  (n_params (mime_same 50) = 1 /\ mime_parse_cost (mime_same 50) <= 15 * (nlen (mime_same 50) + 1) + 4)
  /\ (n_params (mime_same 100) = 1 /\ mime_parse_cost (mime_same 100) <= 15 * (nlen (mime_same 100) + 1) + 4)
  /\ (n_params (mime_same 200) = 1 /\ mime_parse_cost (mime_same 200) <= 15 * (nlen (mime_same 200) + 1) + 4).
Proof. vm_compute. repeat split; try reflexivity; discriminate. Qed.
