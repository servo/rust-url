(* Proofs/C02_ReachPartial.v - C02_statement restricted to the histories built from
     Url::parse without base on a non-file scheme (special schemes: without encoding override)
     followed by any number of set_fragment / set_query / set_port calls with arbitrary arguments and of joins
   with a scheme-less reference that is empty, fragment-only or query-led (tail_ref):
   every such record is Canon, hence a fixpoint of re-parsing; and these histories are inside Reachable2. *)
From Coq Require Import String.
From RU Require Import Base.Prelude Model.HostT Model.UrlRecord Model.Parser Model.WF Proofs.C02_Opaque
  Proofs.C02_Path Proofs.C02_Reach Proofs.C02_AuthParts Proofs.C02_Auth Proofs.C02_AuthMain Proofs.C02_Hist
  Proofs.C02_Canon Proofs.C02_SetPort Proofs.C02_JoinTail.
Open Scope N_scope.
Open Scope list_scope.

Definition tail_op (o : op) : bool :=
  match o with OSetFragment _ | OSetQuery _ | OSetPort _ => true | _ => false end.

Lemma tail_op_not_known dbg hp hpo hd u o : tail_op o = true -> known_step2 dbg hp hpo hd u o = false.
Proof. intros H. apply known_step2_host_or_path. destruct o; try discriminate H; reflexivity. Qed.

Lemma is_file_scheme_type u : is_file u = true -> st_is_file (scheme_type_of (scheme_of u)) = true.
Proof. unfold is_file. intros H. apply list_eqb_spec in H. rewrite H. reflexivity. Qed.

Section ReachC.
Variable dbg : bool.
Variable hp hpo : list N -> result host.
Variable hd : host -> list N.
Hypothesis HOK : HostOK2 hp hpo hd.

Let HRT : HostRT hp hpo hd := proj1 HOK.
Let HAb : host_above hp hpo hd := proj1 (proj2 HOK).

(* the length premise of a step: the new serialization fits the u32 offsets (a longer one makes the Rust
   setter panic in to_u32(..).unwrap() - no Url value results - which the model of the setters does not show) *)
Inductive ReachC : url -> Prop :=
| RC_parse ovr input u :
    usv_list input -> nonfile_input input = true -> (ovr = None \/ special_input input = false) ->
    parse_url dbg hp hpo hd ovr None input = POk u -> ReachC u
| RC_join ovr b input u :
    ReachC b -> usv_list input -> tail_ref input = true ->
    (ovr = None \/ st_is_special (scheme_type_of (b_scheme b)) = false) ->
    parse_url dbg hp hpo hd ovr (Some b) input = POk u -> ReachC u
| RC_step u o u' :
    ReachC u -> tail_op o = true -> op_args_ok o -> apply_op dbg hp hpo hd u o = Some u' ->
    nlen (ser u') <= U32_MAX_P -> ReachC u'.

Lemma option_map_fst_some {A B} (x : option (A * B)) a : option_map fst x = Some a -> exists b, x = Some (a, b).
Proof. destruct x as [[a0 b0]|]; [|discriminate]. cbn. intros E. inversion E; subst. exists b0. reflexivity. Qed.

(* one step with the fragment, query or port setter *)
Lemma tail_op_step u o u' : Canon hp hpo hd u -> tail_op o = true -> op_args_ok o ->
  apply_op dbg hp hpo hd u o = Some u' -> nlen (ser u') <= U32_MAX_P -> Canon hp hpo hd u'.
Proof.
  intros C Ht Ha Ho Hb. destruct o; try discriminate Ht; cbn [apply_op op_args_ok] in *.
  - exact (set_fragment_Canon dbg hp hpo hd HRT u f u' C Ha Ho Hb).
  - exact (set_query_Canon dbg hp hpo hd HRT u q u' C Ha Ho Hb).
  - destruct (option_map_fst_some _ _ Ho) as [s Es].
    exact (set_port_Canon dbg hp hpo hd u p u' s C Ha Es Hb).
Qed.

Theorem ReachC_Canon u : ReachC u -> Canon hp hpo hd u.
Proof.
  induction 1 as [ovr input u Hu Hn Hov Hp | ovr b input u Hr IH Hu Ht Hov Hp | u o u' Hr IH Ht Ha Ho Hb].
  - exact (parse_Canon dbg hp hpo hd HRT ovr input u HAb Hu Hn Hov Hp).
  - exact (join_tail_Canon dbg hp hpo hd HRT ovr b input u IH Hu Ht Hov Hp).
  - exact (tail_op_step u o u' IH Ht Ha Ho Hb).
Qed.

Theorem reach_partial u : ReachC u ->
  Fixpoint_of_reparse dbg hp hpo hd u /\ wf_b u = true /\ ascii (ser u).
Proof. intros H. exact (Canon_fixpoint dbg hp hpo hd HRT u (ReachC_Canon u H)). Qed.

Lemma Canon_scheme_not_file u : Canon hp hpo hd u -> st_is_file (scheme_type_of (scheme_of u)) = false.
Proof.
  intros [sch P q f K | sch segs last q f K | sch ui h pt p q f K | sch ui h pt p q f K Kp]; unfold scheme_of.
  - cbn [opaque_url scheme_end ser]. unfold opaque_ser, opaque_pre. rewrite <- !app_assoc.
    rewrite nfirstn_app_len, (ok_ns _ _ _ _ K). reflexivity.
  - cbn [noauth_url scheme_end ser]. unfold noauth_ser, noauth_pre. rewrite <- !app_assoc.
    rewrite nfirstn_app_len, (nk_ns _ _ _ _ _ K). reflexivity.
  - cbn [auth_url scheme_end ser]. unfold auth_ser, auth_pre. rewrite <- app_assoc.
    rewrite front_sch, (ak_st _ _ _ _ _ _ _ _ _ _ _ K). reflexivity.
  - cbn [auth_url scheme_end ser]. unfold auth_ser, auth_pre. rewrite <- app_assoc.
    rewrite front_sch, (ak_st _ _ _ _ _ _ _ _ _ _ _ K). reflexivity.
Qed.

Lemma Canon_not_file_drive u : Canon hp hpo hd u -> Known_file_drive u = false.
Proof.
  intros C. unfold Known_file_drive. destruct (is_file u) eqn:E; [|reflexivity].
  pose proof (Canon_scheme_not_file u C) as Hf. rewrite (is_file_scheme_type u E) in Hf. discriminate Hf.
Qed.

Theorem ReachC_Reachable2 u : ReachC u -> Reachable2 dbg hp hpo hd u.
Proof.
  (* every constructor of Reachable2 asks Known_file_drive = false of its result, so the induction needs it of every
     record of the history, not of the last one only: nd is settled first, from ReachC_Canon *)
  assert (nd : forall v, ReachC v -> Known_file_drive v = false)
    by (intros v Hv; exact (Canon_not_file_drive v (ReachC_Canon v Hv))).
  intros H. pose proof (nd u H) as Hd. revert Hd.
  induction H as [ovr input u Hu Hn Hov Hp | ovr b input u Hr IH Hu Ht Hov Hp | u o u' Hr IH Ht Ha Ho Hb]; intros Hd.
  - exact (R2_parse dbg hp hpo hd ovr input u Hu Hp Hd).
  - exact (R2_join dbg hp hpo hd ovr b input u (IH (nd b Hr)) Hu Hp Hd).
  - exact (R2_step dbg hp hpo hd u o u' (IH (nd u Hr)) Ha
             (tail_op_not_known dbg hp hpo hd u o Ht) Ho Hd).
Qed.

End ReachC.

(* non-vacuity: http://EXAMPLE.com:80/a/../b?x#y  ->  set_port(8080) -> set_query("k=v w#") -> set_fragment(None)
   -> set_port(80) (the default: elided) -> set_fragment("f g") *)
Definition ex_hist (start : string) (ops : list op) : option url :=
  match parse_url true ex_hp ex_hp ex_hd None None (B start) with
  | POk u => fold_left (fun acc o => match acc with Some v => apply_op true ex_hp ex_hp ex_hd v o | None => None end) ops (Some u)
  | _ => None
  end.

Example reach_partial_example :
  match ex_hist "http://EXAMPLE.com:80/a/../b?x#y"
          [OSetPort (Some 8080); OSetQuery (Some (B "k=v w#")); OSetFragment None; OSetPort (Some 80); OSetFragment (Some (B "f g"))] with
  | Some u => list_eqb (ser u) (B "http://EXAMPLE.com/b?k=v%20w%23#f%20g")
              && match parse_url true ex_hp ex_hp ex_hd None None (ser u) with POk v => url_eqb v u | _ => false end
  | None => false
  end = true
  /\ match ex_hist "a:b c  ?q" [OSetQuery None] with
     | Some u => list_eqb (ser u) (B "a:b c") | None => false end = true.
Proof. vm_compute. split; reflexivity. Qed.
