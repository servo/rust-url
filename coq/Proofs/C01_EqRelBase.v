(* Proofs/C01_EqRelBase.v - the side condition spec_base_ok of the relative-reference classes (lower-case
   scheme, no '/' inside a path segment of the Standard's record) holds of every record the Standard's
   parser returns in the proved no-base classes "scheme:/path" and "scheme://authority...", of the
   results of the scheme-relative class, and is kept by the fragment / query edits - so the classes
   can be chained: parse a base, then resolve references against the result, again and again. *)
From RU Require Import Base.Prelude Model.HostT Model.UrlRecord Model.Setters Spec.Whatwg Proofs.C02_Parts
  Proofs.C08_Input Proofs.C01_EqRun Proofs.C01_EqEnc Proofs.C01_EqPath Proofs.C01_EqClasses
  Proofs.C01_EqAuthSpec Proofs.C01_EqClasses2 Proofs.C01_EqRel Proofs.C01_EqRelArms.

(* the part of a record spec_base_ok looks at *)
Definition same_scheme_path (u v : spec_url) : Prop := su_scheme v = su_scheme u /\ su_path v = su_path u.

Lemma base_ok_same u v : same_scheme_path u v -> spec_base_ok v = spec_base_ok u.
Proof. intros [E1 E2]. unfold spec_base_ok, path_segments. rewrite E1, E2. reflexivity. Qed.

Lemma tail_url_same u rest : same_scheme_path u (tail_url u rest).
Proof.
  unfold tail_url, same_scheme_path. destruct rest as [|c r]; [split; reflexivity|].
  destruct (c =? 63); [|split; reflexivity].
  unfold query_final, frag_opt. destruct (C01_EqRun.after_hash r); split; reflexivity.
Qed.

(* the fragment / query edits of the earlier reference classes *)
Lemma base_ok_set_fragment u f : spec_base_ok (set_fragment u f) = spec_base_ok u.
Proof. destruct u; reflexivity. Qed.
Lemma base_ok_set_query u q : spec_base_ok (set_query u q) = spec_base_ok u.
Proof. destruct u; reflexivity. Qed.

(* what the authority / host / port / path start states leave *)
Lemma sauth_tail_ok u X : su_path u = SPList [] -> scheme_canon (su_scheme u) = true ->
  spec_base_ok (sauth_tail u X) = true.
Proof.
  intros HP Hc. unfold sauth_tail. destruct X as [|c r].
  - unfold spec_base_ok, path_segments. rewrite HP, Hc. reflexivity.
  - destruct (c =? 47).
    + rewrite (base_ok_same _ _ (tail_url_same _ _)).
      unfold spec_base_ok, path_segments. cbn [su_scheme su_path set_path]. rewrite Hc.
      rewrite (spath_no_slash r [] [] eq_refl eq_refl). reflexivity.
    + rewrite (base_ok_same _ _ (tail_url_same _ _)).
      unfold spec_base_ok, path_segments. rewrite HP, Hc. reflexivity.
Qed.

Lemma sauth_port_ok u PR su : su_path u = SPList [] -> scheme_canon (su_scheme u) = true ->
  sauth_port u PR = Some su -> spec_base_ok su = true.
Proof.
  intros HP Hc. unfold sauth_port.
  destruct (negb (starts_ae (after_digits PR))); [discriminate|].
  destruct (is_nil (digits_of PR)).
  - intros H. inversion H. apply sauth_tail_ok; assumption.
  - destruct (65535 <? decimal_value (digits_of PR)); [discriminate|].
    intros H. inversion H. apply sauth_tail_ok; [exact HP | exact Hc].
Qed.

Lemma sauth_host_ok shp u HR su : su_path u = SPList [] -> scheme_canon (su_scheme u) = true ->
  sauth_host shp u HR = Some su -> spec_base_ok su = true.
Proof.
  intros HP Hc. unfold sauth_host.
  destruct (port_split (hs_rest false HR)) as [PR|].
  - destruct (is_nil (hs_host false HR)); [discriminate|].
    destruct (host_parsing shp true (hs_host false HR)) as [sh|]; [|discriminate].
    apply sauth_port_ok; [exact HP | exact Hc].
  - destruct (host_parsing shp true (hs_host false HR)) as [sh|]; [|discriminate].
    intros H. inversion H. apply sauth_tail_ok; [exact HP | exact Hc].
Qed.

Theorem sauth_base_ok shp sch T su : scheme_canon sch = true -> sauth shp sch T = Some su ->
  spec_base_ok su = true.
Proof.
  intros Hc. unfold sauth. destruct (after_at T) as [W HR].
  destruct (opt_is_some W && starts_ae HR); [discriminate|].
  apply sauth_host_ok.
  - destruct W as [w|]; cbn [cred_of]; [|reflexivity].
    destruct (ac_rest w false (set_scheme empty_url sch)) as (_ & _ & Hp & _). cbv zeta in Hp. rewrite Hp. reflexivity.
  - destruct W as [w|]; cbn [cred_of]; [rewrite ac_scheme|]; exact Hc.
Qed.

(* the proved classes return good bases *)
Section Bases.
Variable shp : bool -> list N -> option spec_host.

Lemma spec_scheme_canon input sch rest : spec_scheme (spec_clean input) = Some (sch, rest) -> scheme_canon sch = true.
Proof.
  rewrite spec_clean_is_ntnl_trim. intros Es. destruct (spec_scheme_model _ _ _ Es) as (rem & Hs & _).
  exact (parse_scheme_out _ _ _ Hs).
Qed.

(* "scheme://authority..." without base *)
Theorem authority_result_ok input su : in_class_authority input = true ->
  spec_basic_url_parse shp input None = BDone su -> spec_base_ok su = true.
Proof.
  intros Hc HS. unfold in_class_authority in Hc.
  destruct (spec_scheme (spec_clean input)) as [[sch rest]|] eqn:Es; [|discriminate].
  destruct rest as [|c1 [|c2 T]]; try discriminate.
  apply andb_true_iff in Hc. destruct Hc as [Hc _]. apply andb_true_iff in Hc. destruct Hc as [Hc H2].
  apply andb_true_iff in Hc. destruct Hc as [H0 H1]. apply N.eqb_eq in H1, H2. subst c1 c2.
  assert (is_special_scheme sch = false) as Hnsp by (destruct (is_special_scheme sch); [discriminate | reflexivity]).
  pose proof (spec_authority shp input sch T Es Hnsp) as K.
  destruct (sauth shp sch T) as [su'|] eqn:Esa.
  - rewrite K in HS. inversion HS; subst su'. exact (sauth_base_ok shp sch T su (spec_scheme_canon input sch _ Es) Esa).
  - destruct K as [uf K]. rewrite K in HS. discriminate HS.
Qed.

(* "scheme:/path" without base *)
Theorem pathonly_result_ok input su : usv_list input -> in_class_pathonly input = true ->
  spec_basic_url_parse shp input None = BDone su -> spec_base_ok su = true.
Proof.
  intros Hu Hc HS. unfold in_class_pathonly in Hc.
  destruct (spec_scheme (spec_clean input)) as [[sch rest]|] eqn:Es; [|discriminate].
  pose proof (spec_scheme_canon input sch rest Es) as Hcan.
  rewrite spec_clean_is_ntnl_trim in Es.
  destruct rest as [|c0 rest']; [discriminate|].
  destruct (N.eq_dec c0 47) as [->|Hne].
  2:{ exfalso. destruct c0 as [|p]; [discriminate|]. do 6 (destruct p as [p|p|]; try discriminate). apply Hne. reflexivity. }
  apply andb_true_iff in Hc. destruct Hc as [Hc H3]. apply andb_true_iff in Hc. destruct Hc as [H1 H2].
  destruct (spec_scheme_model _ _ _ Es) as (rem & Hs & Hrem).
  assert (is_special_scheme sch = false) as Hns by (destruct (is_special_scheme sch); [discriminate | reflexivity]).
  assert (starts_with_cp 47 rest' = false) as H47 by (destruct (starts_with_cp 47 rest'); [discriminate | reflexivity]).
  pose proof (not_special_type sch Hns) as Ht.
  destruct (slash_split rem rest' Hrem H47) as (rem' & Er' & Hss & Hsp). subst rest'.
  destruct (model_noauth true (fun _ => Err EmptyHost) (fun _ => Err EmptyHost) (fun _ => []) None shp input sch rem rem'
              Hu Hs Ht Hss Hsp H3) as [Hsnd _].
  rewrite (spec_noauth shp input sch rem rem' Hs Ht Hrem H47 Hsnd) in HS. inversion HS.
  unfold spec_base_ok, spec_noauth_url, path_segments. cbn [su_scheme su_path]. rewrite Hcan.
  rewrite (spath_no_slash (ntnl rem') [] [] eq_refl eq_refl). reflexivity.
Qed.

(* "//authority..." against a non-special, non-opaque base with a lower-case scheme *)
Theorem rel_authority_result_ok input sb su : scheme_canon (su_scheme sb) = true ->
  in_class_rel_authority sb input = true ->
  spec_basic_url_parse shp input (Some sb) = BDone su -> spec_base_ok su = true.
Proof.
  intros Hcan Hc HS. unfold in_class_rel_authority in Hc.
  apply andb_true_iff in Hc. destruct Hc as [Hc Hok]. apply andb_true_iff in Hc. destruct Hc as [H1 H2].
  assert (has_opaque_path sb = false) as Hop by (destruct (has_opaque_path sb); [discriminate | reflexivity]).
  assert (is_special_scheme (su_scheme sb) = false) as Hnsp
    by (destruct (is_special_scheme (su_scheme sb)); [discriminate | reflexivity]).
  destruct (spec_clean input) as [|c1 [|c2 T]] eqn:Ecl; try discriminate Hok.
  apply andb_true_iff in Hok. destruct Hok as [Hok _]. apply andb_true_iff in Hok. destruct Hok as [E1 E2].
  apply N.eqb_eq in E1, E2. subst c1 c2.
  pose proof (spec_rel_authority shp input sb T Hop Hnsp Ecl) as K.
  destruct (sauth shp (su_scheme sb) T) as [su'|] eqn:Esa.
  - rewrite K in HS. inversion HS; subst su'. exact (sauth_base_ok shp (su_scheme sb) T su Hcan Esa).
  - destruct K as [uf K]. rewrite K in HS. discriminate HS.
Qed.

End Bases.
