(* Proofs/C03_AuthEnd.v - auth_end_ok (the text in front of the path of a special non-file URL does not end in
   '/'), the one member of excl03 that is not a known finding, as a consequence of an invariant of histories:
     HE u : (1) if the scheme is special, a host text does not end in '/';
            (2) if the scheme is special and not file, there is a host.
   he_auth_end : wfh u -> HE u -> auth_end_ok u.
   HE holds for the parse results of C02's closed-form classes (no base, scheme other than file), for the file
   records, and is preserved by every mutator step (he_step) - under hypotheses on the host functions that
   url::Host meets: HostWf, IpWf (the display of an IpAddr is a host text) and NoEmpty (Host::parse never returns
   the empty host; it fails with EmptyHost instead). *)
From RU Require Import Base.Prelude Model.HostT Model.UrlRecord Model.Parser Model.WF Proofs.ListN Proofs.C02_Reach Proofs.C03_WF
  Proofs.C06_Front Proofs.C06_Host Proofs.C06_Path Proofs.C06_Main Proofs.C06_Quirks Proofs.C03_ReachParts Proofs.C03_Reach
  Proofs.C03_ReachAll.
Open Scope N_scope.
Open Scope list_scope.

Definition HE (u : url) : Prop :=
  forall sch, scheme u = Some sch -> st_is_special (scheme_type_of sch) = true ->
    (forall t, host_str u = Some (Some t) -> ends_with_byte 47 t = false)
    /\ (st_is_file (scheme_type_of sch) = false -> exists t, host_str u = Some (Some t)).

Lemma he_same u u' : scheme u' = scheme u -> host_str u' = host_str u -> HE u -> HE u'.
Proof. intros Es Eh H sch Hs Hsp. rewrite Es in Hs. rewrite Eh. exact (H sch Hs Hsp). Qed.

Lemma scheme_text03 u : wf_b u = true -> scheme u = Some (nfirstn (scheme_end u) (ser u)).
Proof. intros W. rewrite (scheme_eval u W). unfold piece. cbn [pidx]. rewrite N.sub_0_r. reflexivity. Qed.

Lemma piece0 u x : piece u 0 x = nfirstn x (ser u).
Proof. unfold piece. rewrite N.sub_0_r. reflexivity. Qed.

Theorem he_auth_end u : wfh u -> HE u -> auth_end_ok u.
Proof.
  intros [W HT] H. unfold auth_end_ok. cbv zeta. intros Hsp Hnf.
  destruct (H _ (scheme_text03 u W) Hsp) as [H1 H2]. destruct (H2 Hnf) as (t & Et).
  assert (has_host u = true) as Hh.
  { unfold host_str in Et. destruct (has_host u); [reflexivity | discriminate]. }
  pose proof (has_host_authority u W Hh) as Ha. destruct (HT Hh) as (T1 & _).
  rewrite (host_str_eval u W), Hh in Et. cbn [pidx] in Et. inversion Et as [Et']. clear Et.
  pose proof (H1 t ltac:(rewrite (host_str_eval u W), Hh; cbn [pidx]; rewrite Et'; reflexivity)) as Hlast.
  pose proof (wf_auth_facts u W Ha) as F.
  pose proof (af_ue F); pose proof (af_hs F); pose proof (af_he F); pose proof (af_ps F); pose proof (af_len F).
  pose proof (af_port F) as Po.
  assert (t <> []) as Hne.
  { intros E. rewrite E in Et'. apply (f_equal nlen) in Et'. unfold piece in Et'.
    rewrite nlen_nfirstn in Et' by (rewrite nlen_nskipn; lia). rewrite nlen_nil in Et'. lia. }
  rewrite <- piece0.
  destruct (port u) as [p|].
  - destruct Po as (B58 & Eps & Hp & Ed).
    rewrite <- (piece_cat u 0 (host_end u) (path_start u)) by lia.
    rewrite <- (piece_cat u (host_end u) (host_end u + 1) (path_start u)) by lia.
    apply byte_eqb_nnth in B58. rewrite (piece_byte u _ _ B58).
    unfold piece at 2. rewrite Ed. cbn [app]. apply port_text_last.
  - rewrite Po. rewrite <- (piece_cat u 0 (host_start u) (host_end u)) by lia. rewrite Et'.
    rewrite ends_with_byte_app by exact Hne. exact Hlast.
Qed.

(* hypotheses on the host functions *)
Definition NoEmpty (hp : list N -> result host) : Prop := forall s, hp s <> Ok (HDomain []).
Definition IpWf (hd : host -> list N) : Prop := forall h, op_args_ok (OSetIpHost h) -> host_text_wf (hd h).

Lemma IpWf_IpDisp hd : IpWf hd -> IpDisp hd.
Proof.
  intros H h Hh. destruct (H h Hh) as (T1 & T2 & T3 & _).
  assert (exists c r, hd h = c :: r /\ c <> 58 /\ c <> 64) as X.
  { destruct (hd h) as [|c r]; [contradiction|]. exists c, r. cbn in T2, T3. split; [reflexivity|]. split; congruence. }
  unfold host_disp_ok. destruct h as [d|a|p]; cbn in Hh; [contradiction | exact X | exact X].
Qed.

Section Steps.
Variable dbg : bool.
Variable hp hpo : list N -> result host.
Variable hd : host -> list N.
Hypothesis HW : HostWf hp hpo hd.
Hypothesis HNE : NoEmpty hp.

(* what is known about a host the parser's host state returns *)
Definition host_he (sp_nonfile : bool) (h : host) : Prop :=
  (h = HDomain [] \/ host_text_wf (hd h)) /\ (sp_nonfile = true -> h <> HDomain []).

Lemma hp_he b s h : hp s = Ok h -> host_he b h.
Proof using HW HNE.
  intros E. pose proof HW as (W1 & _ & _). split.
  - destruct (host_eq_dec_empty h) as [->|Hne]; [left; reflexivity | right; exact (W1 s h E Hne)].
  - intros _ ->. exact (HNE s E).
Qed.

Lemma hpo_he s h : hpo s = Ok h -> host_he false h.
Proof using HW.
  intros E. pose proof HW as (_ & W2 & _). split; [|discriminate].
  destruct (host_eq_dec_empty h) as [->|Hne]; [left; reflexivity | right; exact (W2 s h E Hne)].
Qed.

Lemma parse_host_he st l h rem : parse_host hp hpo st l = POk (h, rem) ->
  host_he (scheme_type_eqb st STSpecialNotFile) h.
Proof using HW HNE.
  unfold parse_host. destruct (st_is_file st) eqn:Ef.
  - assert (scheme_type_eqb st STSpecialNotFile = false) as -> by (destruct st; try discriminate; reflexivity).
    unfold get_file_host. destruct (file_host l) as [t rm].
    destruct (hp t) as [h0|e] eqn:Ep; cbn [of_result pbind]; [|discriminate].
    intros H. inversion H; subst. pose proof (hp_he false t h0 Ep) as X.
    destruct h0 as [d|a|p]; try exact X.
    destruct (list_eqb d s_localhost); [split; [left; reflexivity | discriminate] | exact X].
  - destruct (host_scan (st_is_special st) false [] l) as [t rm].
    destruct (scheme_type_eqb st STSpecialNotFile && match t with [] => true | _ => false end); [discriminate|].
    destruct (negb (st_is_special st)) eqn:Esp.
    + assert (scheme_type_eqb st STSpecialNotFile = false) as -> by (destruct st; try discriminate; reflexivity).
      destruct (hpo t) as [h0|e] eqn:Ep; cbn [of_result pbind]; [|discriminate].
      intros H. inversion H; subst. exact (hpo_he t _ Ep).
    + destruct (hp t) as [h0|e] eqn:Ep; cbn [of_result pbind]; [|discriminate].
      intros H. inversion H; subst. exact (hp_he _ t _ Ep).
Qed.

(* a host setter's post-condition carries HE *)
Lemma host_post_he u u' h sch : scheme u = Some sch ->
  scheme u' = scheme u -> host_str u' = Some (if hi_some (hi_of_host h) then Some (hd h) else None) ->
  host_he (scheme_type_eqb (scheme_type_of sch) STSpecialNotFile) h -> HE u'.
Proof using.
  intros Hs Es Eh [X1 X2] sch' Hs' Hsp. rewrite Es, Hs in Hs'. inversion Hs'; subst sch'. rewrite Eh. split.
  - intros t Et. destruct (hi_some (hi_of_host h)) eqn:Ehi; [|discriminate]. inversion Et; subst t.
    destruct X1 as [->|(_ & _ & _ & X)]; [cbn in Ehi; discriminate | exact X].
  - intros Hnf. assert (scheme_type_eqb (scheme_type_of sch) STSpecialNotFile = true) as E
      by (destruct (scheme_type_of sch); try discriminate; reflexivity).
    specialize (X2 E). destruct h as [[|c d]|a|p]; [contradiction | | |]; eexists; reflexivity.
Qed.

Hypothesis HIP : IpWf hd.

Lemma host_src_he sch h : host_src hp hpo sch h -> host_he (scheme_type_eqb (scheme_type_of sch) STSpecialNotFile) h.
Proof using HW HNE HIP.
  intros [(s & E)|[Ha|[(Hf & ->)|(l & rem & E)]]].
  - destruct (st_is_special (scheme_type_of sch)) eqn:Esp; [exact (hp_he _ s h E)|].
    replace (scheme_type_eqb (scheme_type_of sch) STSpecialNotFile) with false
      by (destruct (scheme_type_of sch); try discriminate; reflexivity).
    exact (hpo_he s h E).
  - split; [right; exact (HIP h Ha)|]. intros _ ->. exact Ha.
  - rewrite Hf. split; [left; reflexivity | discriminate].
  - exact (parse_host_he _ l h rem E).
Qed.

Theorem he_step u o u' : wfh u -> op_args_ok o -> excl03 u o u' = false ->
  apply_op dbg hp hpo hd u o = Some u' -> HE u -> HE u'.
Proof using HW HNE HIP.
  intros K Ha G H K0. pose proof K as [W _].
  destruct (step_cases dbg hp hpo hd HW u o u' (IpWf_IpDisp hd HIP) K Ha G H) as [->|[_ [k|k]]]; [exact K0 | |].
  - destruct k as [(Es & Eh & _) _|(Es & Eh & _) _|sch _ Es Eh _ _|new Es Eh _ _ Hcl Hh];
      try exact (he_same u u' Es Eh K0).
    (* the scheme changes inside its class, and a special target has a host *)
    intros sch Hs Hsp. rewrite Es in Hs. inversion Hs; subst sch. rewrite Eh.
    rewrite (Hcl _ (scheme_text03 u W)) in Hsp. destruct (K0 _ (scheme_text03 u W) Hsp) as [K1 _].
    split; [exact K1|]. intros _. rewrite <- (Hcl _ (scheme_text03 u W)) in Hsp.
    rewrite (host_str_eval u W), (Hh Hsp). eexists. reflexivity.
  - destruct k as [sch h Hs Hsrc Es _ Eh _|Es Eh _ Hf _].
    + exact (host_post_he u u' h sch Hs Es Eh (host_src_he sch h Hsrc)).
    + intros sch Hs Hsp. rewrite Es in Hs. rewrite Eh. split; [discriminate|].
      intros Hnf. rewrite (Hf sch Hs Hsp) in Hnf. discriminate.
Qed.

End Steps.
