(* Proofs/C08_RelFile.v - the make_relative inverse law for file URLs, path level and record level (explicit form).
   The file path state on the text make_relative emits, under the no-drive-letter invariant of C02's fifth canonical
   form (C02_File.fseg_ok: segments canonical for a special scheme that do not begin like a drive letter):
     finish_dotdot_f / loop_dots_f   k "../" pop k closed segments (C08_RelPath.finish_dotdot / loop_dots_st at STFile);
     loop_rel_f                      then canonical segments are appended unchanged (C02_File.file_loop_canon) and the
                                     collapse of leading slashes is the identity (C02_File.fixup_id);
     shorten_path_Bs_f               the relative arm of parse_file cuts the base's last segment;
     join_rel_path_f / join_rel_query_f   the join through parse_file in closed form;
     relative_file_hier              the law for two records hier_url pre 4 .. with pre = "file://" R, inside MR_ok - the
                                     one reference that goes through the one-slash arm of parse_file ("/" at the root,
                                     which builds a new record from host_str) is a premise here, discharged for canonical
                                     file records in C08_RelFileCanon. *)
From Coq Require Import String.
From RU Require Import Base.Prelude Base.Utf8 Base.Utf8Facts Model.AsciiSet Gen.Tables Model.PercentEncoding
  Model.HostT Model.UrlRecord Model.Parser Model.Setters Model.WF Model.MakeRelative Model.KnownC08
  Proofs.ListN Proofs.C14_Set Proofs.C14_Enc Proofs.C14_Views Proofs.C02_Enc Proofs.C02_Parts Proofs.C02_Opaque
  Proofs.C02_Path Proofs.C02_PathL1 Proofs.C02_JoinPath Proofs.C02_PathSp Proofs.C02_SetQF Proofs.C02_File
  Proofs.C08_Input Proofs.C08_Simple Proofs.C08_Contain Proofs.C08_RelEval Proofs.C08_RelPath Proofs.C08_RelJoin
  Proofs.C08_RelMr Proofs.C08_RelLaw.
Open Scope N_scope.
Open Scope list_scope.

(* drive letters *)
Lemma wdl_segment_one a : is_tnl a = false -> starts_with_wdl_segment [a] = false.
Proof. intros H. unfold starts_with_wdl_segment. rewrite inp_next_cons by exact H. reflexivity. Qed.

Lemma wdl_segment_two a b r : is_tnl a = false -> is_tnl b = false ->
  (is_alpha a && ((b =? 58) || (b =? 124))) = false -> starts_with_wdl_segment (a :: b :: r) = false.
Proof.
  intros Ha Hb H. unfold starts_with_wdl_segment. rewrite inp_next_cons by exact Ha. rewrite inp_next_cons by exact Hb.
  rewrite H. reflexivity.
Qed.

Lemma fseg_chars s : fseg_ok s = true -> forallb seg_char_sp s = true.
Proof. intros H. apply good_seg_sp_chars. apply fseg_ok_sp. exact H. Qed.

Lemma seg_char_sp_tnl c : seg_char_sp c = true -> is_tnl c = false.
Proof.
  unfold seg_char_sp, seg_char, not_tnl. intros H. apply andb_true_iff in H. destruct H as [H _].
  apply andb_true_iff in H. destruct H as [H _]. apply andb_true_iff in H. destruct H as [H _].
  apply negb_true_iff in H. exact H.
Qed.

(* a canonical file segment followed by a separator (or nothing) does not read as a drive-letter segment *)
Lemma fseg_not_wdl_segment s rest : fseg_ok s = true -> s <> [] ->
  match rest with [] => True | c :: _ => is_tnl c = false /\ (c = 47 \/ c = 63 \/ c = 35) end ->
  starts_with_wdl_segment (s ++ rest) = false.
Proof.
  intros Hs Hne Hrest. pose proof (fseg_chars s Hs) as Hc. pose proof (fseg_ok_like s Hs) as Hl.
  destruct s as [|a [|b s']]; [exfalso; apply Hne; reflexivity | |].
  - cbn [forallb] in Hc. apply andb_true_iff in Hc. destruct Hc as [Ha _]. apply seg_char_sp_tnl in Ha.
    cbn [app]. destruct rest as [|c r]; [apply wdl_segment_one; exact Ha|].
    destruct Hrest as [Ht Hsep]. apply wdl_segment_two; [exact Ha | exact Ht |].
    destruct Hsep as [->|[->| ->]]; cbn [N.eqb Pos.eqb orb]; apply andb_false_r.
  - cbn [forallb] in Hc. apply andb_true_iff in Hc. destruct Hc as [Ha Hc]. apply andb_true_iff in Hc. destruct Hc as [Hb _].
    apply seg_char_sp_tnl in Ha, Hb. cbn [app]. apply wdl_segment_two; [exact Ha | exact Hb |]. exact Hl.
Qed.

Lemma rest_qh_sep rest : rest_qh rest ->
  match rest with [] => True | c :: _ => is_tnl c = false /\ (c = 47 \/ c = 63 \/ c = 35) end.
Proof.
  destruct rest as [|c r]; [intros _; exact I|]. intros [Hq Ht]. split; [exact Ht|].
  unfold C02_Parts.is_qh in Hq. right. lia.
Qed.

(* the path part of a reference make_relative emits for canonical file targets is no drive-letter segment *)
Lemma rp_not_wdl_segment ra rb tl rest :
  forallb fseg_ok rb = true -> fseg_ok tl = true -> forallb nonempty rb = true -> rest_qh rest ->
  (ra <> [] \/ rb <> [] \/ tl <> []) ->
  starts_with_wdl_segment (dots_text ra ++ segs_text rb ++ tl ++ rest) = false.
Proof.
  intros Hrb Htl Hne Hrest Hsome. destruct ra as [|a ra].
  - destruct rb as [|s rb].
    + cbn [dots_text segs_text map concat app].
      apply fseg_not_wdl_segment; [exact Htl | | apply rest_qh_sep; exact Hrest].
      destruct Hsome as [H|[H|H]]; try (exfalso; apply H; reflexivity). exact H.
    + cbn [forallb] in Hrb, Hne. apply andb_true_iff in Hrb, Hne. destruct Hrb as [Hs _]. destruct Hne as [Hn _].
      unfold segs_text. cbn [dots_text map concat app]. rewrite <- !app_assoc.
      apply fseg_not_wdl_segment; [exact Hs | destruct s; [discriminate Hn | discriminate] |].
      cbn [app]. split; [reflexivity | left; reflexivity].
  - unfold dots_text. cbn [map concat app]. apply wdl_segment_two; reflexivity.
Qed.

(* "../" pops the last closed segment (file) *)
Section DotDotF.
Variable pre : list N.
Variable dbg : bool.
Notation ps := (nlen pre).
Notation BsP := (Bs pre).
Notation loop := (parse_path_loop dbg CUrlParser STFile ps).

Lemma finish_dotdot_f segs t hh : no_slash t = true -> starts_with_wdl (t ++ [47]) = false ->
  finish_segment dbg STFile ps (BsP (segs ++ [t]) ++ [46; 46] ++ [47]) (nlen (BsP (segs ++ [t]))) true hh
  = POk (BsP segs, hh).
Proof. apply finish_dotdot. Qed.

Lemma loop_dots_f ra : forall segs X hh,
  forallb no_slash ra = true -> forallb not_wdl_seg ra = true ->
  loop (dots_text ra ++ X) (BsP (segs ++ ra)) (nlen (BsP (segs ++ ra))) [] hh
  = loop X (BsP segs) (nlen (BsP segs)) [] hh.
Proof. apply loop_dots_st. Qed.

(* the whole reference path: k "../", then canonical file segments; the collapse of leading slashes is the identity *)
Theorem loop_rel_f common ra rb tl rest hh :
  forallb no_slash ra = true -> forallb not_wdl_seg ra = true ->
  forallb fseg_ok (common ++ rb) = true -> fseg_ok tl = true ->
  match common ++ rb with [] => True | s :: _ => s <> [] end -> rest_qh rest ->
  loop (dots_text ra ++ segs_text rb ++ tl ++ rest) (BsP (common ++ ra)) (nlen (BsP (common ++ ra))) [] hh
  = POk (BsP (common ++ rb) ++ tl, hh, rest).
Proof.
  intros Hn Hw Hall Htl Hfirst Hrest.
  rewrite loop_dots_f by assumption.
  assert (forallb fseg_ok rb = true) as Hrb by (exact (forallb_app_r _ _ _ Hall)).
  rewrite (file_loop_canon dbg pre rb common tl rest hh Hrb Htl Hrest).
  f_equal. f_equal. f_equal.
  unfold Bs. rewrite <- !app_assoc. cbn [app]. apply fixup_id.
  apply fseg_first_not_slash; assumption.
Qed.

(* shorten_path on  pre "/" seg "/" ... "/" last  cuts the last segment unless it is a normalised drive letter *)
Lemma shorten_path_Bs_f segs last : no_slash last = true -> is_normalized_wdl last = false ->
  shorten_path STFile ps (BsP segs ++ last) = POk (BsP segs).
Proof.
  intros Hl Hnw. rewrite shorten_Bs by exact Hl. rewrite Hnw. reflexivity.
Qed.
End DotDotF.

(* the join through parse_file *)
Lemma sqf_above q f : opt_clean T_SPECIAL_QUERY q -> opt_clean T_FRAGMENT f -> forallb above_space (qf_text q f) = true.
Proof. intros Hq Hf. exact (qf_text_above_st STFile q f Hq Hf). Qed.

Section RelJoinF.
Variables (dbg : bool) (hp hpo : list N -> result host) (hd : host -> list N).
Notation join b input := (parse_url dbg hp hpo hd None (Some b) input).

Theorem join_rel_path_f b pre common ra rb blast tl q f c rp' :
  path_start b = nlen pre -> b_before_query b = Bs pre (common ++ ra) ++ blast ->
  cannot_be_a_base b = Some false -> b_st b = STFile ->
  front_auth (scheme_end b) pre ->
  no_slash blast = true -> is_normalized_wdl blast = false ->
  forallb no_slash ra = true -> forallb not_wdl_seg ra = true ->
  forallb fseg_ok (common ++ rb) = true -> fseg_ok tl = true -> forallb nonempty rb = true ->
  match common ++ rb with [] => True | s :: _ => s <> [] end ->
  opt_clean T_SPECIAL_QUERY q -> opt_clean T_FRAGMENT f ->
  dots_text ra ++ segs_text rb ++ tl = c :: rp' -> seg_char_sp c = true ->
  has_scheme_b ((dots_text ra ++ segs_text rb ++ tl) ++ qf_text q f) = false ->
  let P := Bs pre (common ++ rb) ++ tl in
  opt_le (qf_qs (nlen P) q) U32_MAX_P -> opt_le (qf_fs (nlen P) q f) U32_MAX_P ->
  join b ((dots_text ra ++ segs_text rb ++ tl) ++ qf_text q f)
  = POk (url_with b (P ++ qf_text q f) (qf_qs (nlen P) q) (qf_fs (nlen P) q f)).
Proof.
  intros Hps Hbq Hcb Hst Hfa Hbl Hblw Hra Hwra Hall Htl Nrb Hfirst Hq Hf Erp Hc Hsch P Bq Bf.
  assert (forallb fseg_ok rb = true) as Hrb by (exact (forallb_app_r _ _ _ Hall)).
  set (rp := dots_text ra ++ segs_text rb ++ tl) in *.
  assert (forallb above_space (rp ++ qf_text q f) = true) as Habove.
  { unfold rp. rewrite !forallb_app. rewrite dots_text_above.
    rewrite (segs_text_above rb (good_segs_sp_good rb (fsegs_ok_sp rb Hrb))).
    rewrite (good_seg_above tl (good_seg_sp_good tl (fseg_ok_sp tl Htl))). rewrite (sqf_above q f Hq Hf). reflexivity. }
  assert (starts_with_wdl_segment (rp ++ qf_text q f) = false) as Hnws.
  { unfold rp. rewrite <- !app_assoc. apply rp_not_wdl_segment; try assumption; [apply qf_text_rest|].
    destruct ra as [|a ra']; [|left; discriminate]. destruct rb as [|s rb']; [|right; left; discriminate].
    right. right. unfold rp in Erp. cbn [dots_text segs_text map concat app] in Erp. rewrite Erp. discriminate. }
  unfold parse_url. rewrite trim_c0_id by (apply all_above_edge; exact Habove).
  rewrite parse_scheme_none by (rewrite above_ntnl by exact Habove; exact Hsch).
  pose proof (seg_char_sp_tnl c Hc) as Hc1.
  unfold seg_char_sp, seg_char in Hc. apply andb_true_iff in Hc. destruct Hc as [Hc Hc4]. apply andb_true_iff in Hc. destruct Hc as [Hc Hc3].
  apply andb_true_iff in Hc. destruct Hc as [_ Hc2]. apply negb_true_iff in Hc2, Hc3, Hc4. unfold C02_Parts.is_qh in Hc3.
  assert (inp_next (rp ++ qf_text q f) = Some (c, rp' ++ qf_text q f)) as En.
  { rewrite Erp. cbn [app]. apply inp_next_cons. exact Hc1. }
  unfold inp_starts_with_char. rewrite En. replace (c =? 35) with false by lia. rewrite Hcb.
  fold (b_st b). rewrite Hst. cbn [st_is_file]. unfold parse_file, inp_split_first. rewrite En.
  unfold is_slash_or_bslash. rewrite Hc2, Hc4. cbn [orb].
  replace (c =? 63) with false by lia. replace (c =? 35) with false by lia. rewrite Hnws. cbn [negb].
  rewrite Hps, Hbq. rewrite shorten_path_Bs_f by assumption. cbn [pbind].
  unfold parse_path. unfold rp. rewrite <- !app_assoc.
  rewrite loop_rel_f; [| assumption | assumption | assumption | assumption | assumption | apply qf_text_rest].
  cbn [pbind]. fold P.
  assert (P = pre ++ (47 :: segs_text (common ++ rb) ++ tl)) as EP by (unfold P, Bs; rewrite <- !app_assoc; reflexivity).
  rewrite EP. rewrite wqf_front_auth by exact Hfa. rewrite <- EP.
  rewrite pqf_canon; [| reflexivity | exact Hq | exact Hf | exact Bq | exact Bf].
  cbn [pbind]. unfold url_with. rewrite Hps. reflexivity.
Qed.

(* "?" q ["#" f] against a file base *)
Theorem join_rel_query_f b x f :
  cannot_be_a_base b = Some false -> b_st b = STFile ->
  clean T_SPECIAL_QUERY x = true -> opt_clean T_FRAGMENT f ->
  let P := b_before_query b in
  nlen P <= U32_MAX_P -> opt_le (qf_fs (nlen P) (Some x) f) U32_MAX_P ->
  join b (qf_text (Some x) f)
  = POk (url_with b (P ++ qf_text (Some x) f) (Some (nlen P)) (qf_fs (nlen P) (Some x) f)).
Proof.
  intros Hcb Hst Hq Hf. apply join_rel_query; [exact Hcb | rewrite Hst; exact Hq | exact Hf].
Qed.
End RelJoinF.

(* the law on records in explicit form *)
Record rel_ok_f (pre : list N) (bsegs : list (list N)) (blast : list N)
                (tsegs : list (list N)) (tlast : list N) (tq tf : option (list N)) : Prop := mk_rel_ok_f {
  rf_front : exists R, pre = s_file ++ [58; 47; 47] ++ R;
  rf_bsegs : forallb no_slash bsegs = true;
  rf_blast : no_slash blast = true;
  rf_tsegs : forallb fseg_ok tsegs = true;
  rf_tlast : fseg_ok tlast = true;
  rf_q : opt_clean T_SPECIAL_QUERY tq;
  rf_f : opt_clean T_FRAGMENT tf;
  rf_bq : opt_le (qf_qs (nlen (pre ++ path_text tsegs tlast)) tq) U32_MAX_P;
  rf_bf : opt_le (qf_fs (nlen (pre ++ path_text tsegs tlast)) tq tf) U32_MAX_P
}.

Lemma fsegs_no_slash segs : forallb fseg_ok segs = true -> forallb no_slash segs = true.
Proof.
  apply forallb_impl. intros s H. destruct (good_seg_sp_parts s (fseg_ok_sp s H)) as (_ & Hn & _). exact Hn.
Qed.

Section LawF.
Variables (dbg : bool) (hp hpo : list N -> result host) (hd : host -> list N).
Notation join b input := (parse_url dbg hp hpo hd None (Some b) input).

Theorem relative_file_hier pre ue hs he hi po bsegs blast bq bf tsegs tlast tq tf r :
  rel_ok_f pre bsegs blast tsegs tlast tq tf ->
  (* the reference "/" at the root goes through the one-slash arm of parse_file: supplied by the caller *)
  (bsegs = [] -> tsegs = [] -> tlast = [] -> blast <> [] ->
   join (hier_url pre 4 ue hs he hi po bsegs blast bq bf) (47 :: qf_text tq tf)
   = POk (hier_url pre 4 ue hs he hi po tsegs tlast tq tf)) ->
  mr_ok (hier_url pre 4 ue hs he hi po bsegs blast bq bf) (hier_url pre 4 ue hs he hi po tsegs tlast tq tf) = true ->
  make_relative dbg (hier_url pre 4 ue hs he hi po bsegs blast bq bf)
                    (hier_url pre 4 ue hs he hi po tsegs tlast tq tf) = Some (Some r) ->
  join (hier_url pre 4 ue hs he hi po bsegs blast bq bf) r
  = POk (hier_url pre 4 ue hs he hi po tsegs tlast tq tf).
Proof.
  intros K Hroot Hok Hmr. destruct K as [(R & Epre) Hbs Hbl Hts Htl Hq Hf Bq Bf].
  assert (front_auth 4 pre) as Hfa0 by (exists s_file, R; split; [exact Epre | reflexivity]).
  assert (front_pre 4 pre) as Hfa by (left; exact Hfa0).
  assert (scheme_type_of (nfirstn 4 pre) = STFile) as Hst0.
  { rewrite Epre. change 4 with (nlen s_file). rewrite nfirstn_app_len. reflexivity. }
  pose proof (fsegs_no_slash tsegs Hts) as Htn.
  destruct (good_seg_sp_parts tlast (fseg_ok_sp tlast Htl)) as (_ & Htln & _).
  destruct (mr_reference dbg pre 4 ue hs he hi po bsegs blast bq bf tsegs tlast tq tf r Hfa Hbs Hbl Htn Htln Hok Hmr)
    as (common & ra & rb & -> & -> & Nra & Nt & Hwra & Hwbl & F1 & F2 & F3 & ->).
  rewrite Hst0 in Hwbl. specialize (Hwbl eq_refl). clear Hmr Hok.
  set (b := hier_url pre 4 ue hs he hi po (common ++ ra) blast bq bf).
  assert (b_st b = STFile) as Hbst by (unfold b_st, b; rewrite hier_b_scheme by exact Hfa; exact Hst0).
  assert (cannot_be_a_base b = Some false) as Hcb by (apply hier_cbb; exact Hfa).
  apply rel_path_text_cases.
  - (* a path part: the "otherwise" arm of parse_file *)
    intros Hsome.
    pose proof (forallb_app_r _ _ _ Nt) as Nrb. pose proof (forallb_app_r _ _ _ Hts) as Hrb.
    destruct (rp_head STFile ra rb tlast Nrb) as (c & rp' & Erp & Hc & Hcbs); [| | tauto |].
    { revert Hrb. apply forallb_impl. intros s Hs. exact (seg_ok_special STFile s eq_refl (fseg_ok_sp s Hs)). }
    { exact (seg_ok_special STFile tlast eq_refl (fseg_ok_sp tlast Htl)). }
    assert (seg_char_sp c = true) as Hcsp.
    { unfold seg_char_sp. rewrite Hc. unfold no_spec_bslash in Hcbs. rewrite andb_true_r in Hcbs. exact Hcbs. }
    assert (match common ++ rb with [] => True | s :: _ => s <> [] end) as Hfirst.
    { destruct (common ++ rb) as [|s ts]; [exact I|]. cbn [forallb] in Nt. apply andb_true_iff in Nt.
      destruct Nt as [Ns _]. destruct s; [discriminate Ns | discriminate]. }
    pose proof (join_rel_path_f dbg hp hpo hd b pre common ra rb blast tlast tq tf c rp') as J.
    rewrite <- (Bs_path pre (common ++ rb) tlast) in J.
    assert (b_before_query b = Bs pre (common ++ ra) ++ blast) as Hbq
      by (unfold b; rewrite hier_before_query; apply Bs_path).
    pose proof (rp_no_scheme ra rb blast tlast _ F2 Hsome (qf_text_sep tq tf)) as Hsch.
    rewrite (J eq_refl Hbq Hcb Hbst Hfa0 Hbl (nwdl_of_not_wdl _ Hwbl) (forallb_app_r _ _ _ Hbs) Hwra Hts Htl Nrb Hfirst
               Hq Hf Erp Hcsp Hsch Bq Bf).
    reflexivity.
  - (* "/" below the root goes through the one-slash arm *)
    intros -> -> -> El. subst b. rewrite app_nil_r in *. rewrite (F1 eq_refl eq_refl El eq_refl) in *.
    apply Hroot; try reflexivity. intros ->. discriminate El.
  - intros -> -> El. specialize (F3 eq_refl eq_refl El). apply list_eqb_spec in El. subst tlast b.
    rewrite app_nil_r in *. apply join_same_path; try assumption. rewrite Hst0. exact Hq.
Qed.
End LawF.
