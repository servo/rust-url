(* Proofs/C01_EqClasses.v - the computable recognisers of the input classes for which the C01
   equivalence is proved, stated on the SPECIFICATION side (the Standard's scheme scan on the cleaned
   text; no function of the parser model occurs in them), and the class theorems in the form the
   property file states them. *)
From RU Require Import Base.Prelude Model.HostT Model.UrlRecord Model.Parser Spec.Whatwg Proofs.C02_Parts
  Proofs.C01_Tables Proofs.C08_Input Proofs.C01_EqRun Proofs.C01_EqEnc Proofs.C01_EqApi Proofs.C01_EqOpaque
  Proofs.C01_EqRef Proofs.C01_EqPathSpec Proofs.C01_EqPath Proofs.C01_EqOverflow Proofs.C01_EqEmpty.

(* outcome of the comparison: the specification succeeds with su, and the model either reports that
   the serialization outgrew u32 (ParseError::Overflow, which the Standard does not have) or succeeds
   with a record whose ten API strings are the Standard's *)
Definition agree_ok (dbg : bool) (shs : spec_host -> list N) (m : pres url) (s : parse_outcome) : Prop :=
  exists su, s = BDone su
    /\ (m = PErr Overflow \/ exists u, m = POk u /\ api_of_model dbg u = Some (spec_api_list shs su)).

(* class "opaque": non-special scheme, the text after ':' does not start with '/' *)
Definition in_class_opaque (input : list N) : bool :=
  match spec_scheme (spec_clean input) with
  | Some (sch, rest) => negb (is_special_scheme sch) && negb (starts_with_cp 47 rest)
  | None => false
  end.

Lemma split_of_starts_with_cp rem : starts_with_cp 47 (ntnl rem) = false -> inp_split_prefix_char 47 rem = None.
Proof.
  unfold inp_split_prefix_char. destruct (inp_next rem) as [[c r]|] eqn:En; [|reflexivity].
  destruct (inp_next_ntnl rem c r En) as [-> _]. cbn [starts_with_cp]. intros ->. reflexivity.
Qed.

Lemma not_special_type sch : is_special_scheme sch = false -> scheme_type_of sch = STNotSpecial.
Proof.
  rewrite <- special_schemes_are_the_standards. destruct (scheme_type_of sch); cbn [st_is_special]; congruence.
Qed.

(* a scheme on the specification side is a scheme on the model side *)
Lemma spec_scheme_model l sch rest : spec_scheme (ntnl l) = Some (sch, rest) ->
  exists rem, parse_scheme CUrlParser l = Some (sch, rem) /\ ntnl rem = rest.
Proof.
  intros H. pose proof (scheme_state_eq l) as K. rewrite H in K.
  destruct (parse_scheme CUrlParser l) as [[s r]|]; [|contradiction]. destruct K as [-> <-].
  exists r. split; reflexivity.
Qed.

(* ... for an input: what the model's scheme scan leaves behind "sch:" is a scalar-value text that cleans to R *)
Lemma spec_scheme_input input sch R : usv_list input -> spec_scheme (spec_clean input) = Some (sch, R) ->
  exists rem, parse_scheme CUrlParser (input_new_trim_c0 input) = Some (sch, rem) /\ ntnl rem = R /\ usv_list rem.
Proof.
  intros Hu Es. rewrite spec_clean_is_ntnl_trim in Es.
  destruct (spec_scheme_model _ _ _ Es) as (rem & Hps & Hrem). exists rem. split; [exact Hps | split; [exact Hrem|]].
  destruct (parse_scheme_suffix _ _ _ _ Hps) as [pre0 Hpre].
  pose proof (usv_trim input Hu) as Ht. rewrite Hpre in Ht. apply usv_app in Ht. tauto.
Qed.

Theorem class_opaque dbg hp hpo hd ovr shp shs input : usv_list input -> in_class_opaque input = true ->
  agree_ok dbg shs (parse_url dbg hp hpo hd ovr None input) (spec_basic_url_parse shp input None).
Proof.
  intros Hu Hc. unfold in_class_opaque in Hc. rewrite spec_clean_is_ntnl_trim in Hc.
  destruct (spec_scheme (ntnl (input_new_trim_c0 input))) as [[sch rest]|] eqn:Es; [|discriminate].
  apply andb_true_iff in Hc. destruct Hc as [H1 H2].
  destruct (spec_scheme_model _ _ _ Es) as (rem & Hs & <-).
  assert (is_special_scheme sch = false) as Hns by (destruct (is_special_scheme sch); [discriminate | reflexivity]).
  assert (starts_with_cp 47 (ntnl rem) = false) as H47 by (destruct (starts_with_cp 47 (ntnl rem)); [discriminate | reflexivity]).
  exact (eq_opaque dbg hp hpo hd ovr shp shs input sch rem Hu Hs (not_special_type sch Hns)
           (split_of_starts_with_cp rem H47)).
Qed.

(* references against a related base *)
(* the specification succeeds with su'; the model reports Overflow or succeeds with a record that is
   related to su' again (in particular: same ten API strings) *)
Definition agree_rel (dbg : bool) (shs : spec_host -> list N) (m : pres url) (s : parse_outcome) : Prop :=
  exists su, s = BDone su
    /\ (m = PErr Overflow \/ exists u, m = POk u /\ related dbg shs u su).

Lemma agree_rel_ok dbg shs m s : agree_rel dbg shs m s -> agree_ok dbg shs m s.
Proof.
  intros (su & E & [K|(u & K & R)]); exists su; (split; [exact E|]); [left; exact K|].
  right. exists u. split; [exact K | exact (rel_api _ _ _ _ R)].
Qed.

Definition in_class_fragment_only (input : list N) : bool := starts_with_cp 35 (spec_clean input).
Definition in_class_query_only (sb : spec_url) (input : list N) : bool :=
  negb (has_opaque_path sb) && starts_with_cp 63 (spec_clean input).
(* no scheme, not "#...", base with an opaque path: failure on both sides *)
Definition in_class_opaque_base_fail (sb : spec_url) (input : list N) : bool :=
  has_opaque_path sb
  && match spec_scheme (spec_clean input) with None => true | Some _ => false end
  && negb (starts_with_cp 35 (spec_clean input)).

Theorem class_fragment_only dbg hp hpo hd shp shs input b sb : usv_list input -> related dbg shs b sb ->
  in_class_fragment_only input = true ->
  agree_rel dbg shs (parse_url dbg hp hpo hd None (Some b) input) (spec_basic_url_parse shp input (Some sb)).
Proof.
  intros Hu R Hc. unfold in_class_fragment_only in Hc.
  destruct (spec_clean input) as [|c f] eqn:E; [discriminate|]. cbn [starts_with_cp] in Hc.
  apply N.eqb_eq in Hc. subst c.
  exact (eq_fragment_only dbg hp hpo hd shp shs input b sb f Hu R E).
Qed.

Theorem class_query_only dbg hp hpo hd shp shs input b sb : usv_list input -> related dbg shs b sb ->
  in_class_query_only sb input = true ->
  agree_rel dbg shs (parse_url dbg hp hpo hd None (Some b) input) (spec_basic_url_parse shp input (Some sb)).
Proof.
  intros Hu R Hc. unfold in_class_query_only in Hc. apply andb_true_iff in Hc. destruct Hc as [H1 H2].
  destruct (spec_clean input) as [|c q] eqn:E; [discriminate|]. cbn [starts_with_cp] in H2.
  apply N.eqb_eq in H2. subst c.
  assert (has_opaque_path sb = false) as Hop by (destruct (has_opaque_path sb); [discriminate | reflexivity]).
  exact (eq_query_only dbg hp hpo hd shp shs input b sb q Hu R Hop E).
Qed.

Theorem class_opaque_base_fail dbg hp hpo hd shp shs input b sb : related dbg shs b sb ->
  in_class_opaque_base_fail sb input = true ->
  (exists u, spec_basic_url_parse shp input (Some sb) = BFailure u)
  /\ parse_url dbg hp hpo hd None (Some b) input = PErr RelativeUrlWithCannotBeABaseBase.
Proof.
  intros R Hc. unfold in_class_opaque_base_fail in Hc.
  apply andb_true_iff in Hc. destruct Hc as [Hc H3]. apply andb_true_iff in Hc. destruct Hc as [H1 H2].
  apply (eq_opaque_base_fails dbg hp hpo hd shp shs input b sb R H1).
  - destruct (spec_scheme (spec_clean input)); [discriminate | reflexivity].
  - destruct (starts_with_cp 35 (spec_clean input)); [discriminate | reflexivity].
Qed.

(* parse results of the opaque class are related bases *)
Theorem class_opaque_related dbg hp hpo hd ovr shp shs input : usv_list input -> in_class_opaque input = true ->
  agree_rel dbg shs (parse_url dbg hp hpo hd ovr None input) (spec_basic_url_parse shp input None).
Proof.
  intros Hu Hc. unfold in_class_opaque in Hc. rewrite spec_clean_is_ntnl_trim in Hc.
  destruct (spec_scheme (ntnl (input_new_trim_c0 input))) as [[sch rest]|] eqn:Es; [|discriminate].
  apply andb_true_iff in Hc. destruct Hc as [H1 H2].
  destruct (spec_scheme_model _ _ _ Es) as (rem & Hs & <-).
  assert (is_special_scheme sch = false) as Hns by (destruct (is_special_scheme sch); [discriminate | reflexivity]).
  assert (starts_with_cp 47 (ntnl rem) = false) as H47 by (destruct (starts_with_cp 47 (ntnl rem)); [discriminate | reflexivity]).
  pose proof (not_special_type sch Hns) as Ht. pose proof (split_of_starts_with_cp rem H47) as Hsp.
  eexists. split; [exact (spec_opaque shp input sch rem Hs Ht Hsp)|].
  destruct (model_opaque dbg hp hpo hd ovr shp input sch rem Hu Hs Ht Hsp) as [E|[E K]]; [left; exact E|].
  right. eexists. split; [exact E|]. apply related_opaque. exact K.
Qed.

(* class "path only": non-special scheme, "scheme:/" not followed by a second '/' *)
(* excluded (exactly finding F-C01-9): a ".." that would pop a drive-letter-shaped segment; spath_ok
   runs the Standard's own path state (segment list, buffer) over the text and tests every ".." *)
Definition in_class_pathonly (input : list N) : bool :=
  match spec_scheme (spec_clean input) with
  | Some (sch, 47 :: rest') =>
      negb (is_special_scheme sch) && negb (starts_with_cp 47 rest') && spath_ok rest' [] []
  | _ => false
  end.

Lemma slash_split rem rest' : ntnl rem = 47 :: rest' -> starts_with_cp 47 rest' = false ->
  exists rem', ntnl rem' = rest' /\ inp_split_prefix_str s_ss rem = None /\ inp_split_prefix_char 47 rem = Some rem'.
Proof.
  intros H1 H2. destruct (inp_next_some rem 47 rest' H1) as (r & En & Er & _).
  exists r. split; [exact Er|]. split.
  - unfold s_ss. cbn [inp_split_prefix_str]. rewrite En. replace (47 =? 47) with true by reflexivity.
    destruct (inp_next r) as [[d r']|] eqn:En2; [|reflexivity].
    destruct (inp_next_ntnl r d r' En2) as [E _]. rewrite Er in E. rewrite E in H2. cbn [starts_with_cp] in H2.
    rewrite H2. reflexivity.
  - unfold inp_split_prefix_char. rewrite En. reflexivity.
Qed.

Theorem class_pathonly dbg hp hpo hd ovr shp shs input : usv_list input -> in_class_pathonly input = true ->
  agree_rel dbg shs (parse_url dbg hp hpo hd ovr None input) (spec_basic_url_parse shp input None).
Proof.
  intros Hu Hc. unfold in_class_pathonly in Hc. rewrite spec_clean_is_ntnl_trim in Hc.
  destruct (spec_scheme (ntnl (input_new_trim_c0 input))) as [[sch rest]|] eqn:Es; [|discriminate].
  destruct rest as [|c0 rest']; [discriminate|].
  destruct (N.eq_dec c0 47) as [->|Hne].
  2:{ exfalso. destruct c0 as [|p]; [discriminate|]. do 6 (destruct p as [p|p|]; try discriminate). apply Hne. reflexivity. }
  apply andb_true_iff in Hc. destruct Hc as [Hc H3]. apply andb_true_iff in Hc. destruct Hc as [H1 H2].
  destruct (spec_scheme_model _ _ _ Es) as (rem & Hs & Hrem).
  assert (is_special_scheme sch = false) as Hns by (destruct (is_special_scheme sch); [discriminate | reflexivity]).
  assert (starts_with_cp 47 rest' = false) as H47 by (destruct (starts_with_cp 47 rest'); [discriminate | reflexivity]).
  pose proof (not_special_type sch Hns) as Ht.
  destruct (slash_split rem rest' Hrem H47) as (rem' & Er' & Hss & Hsp).
  subst rest'.
  destruct (model_noauth dbg hp hpo hd ovr shp input sch rem rem' Hu Hs Ht Hss Hsp H3) as [Hsnd Hm].
  eexists. split; [exact (spec_noauth shp input sch rem rem' Hs Ht Hrem H47 Hsnd)|].
  destruct Hm as [E|[E W]]; [left; exact E|].
  right. eexists. split; [exact E|].
  assert (fst (spath (ntnl rem') [] []) <> []) as Hne.
  { clear. generalize (@nil (list N)) at 1. generalize (@nil N).
    induction (ntnl rem') as [|c r IH]; intros B P; cbn [spath].
    - cbn [fst]. apply fin_nonempty.
    - destruct (c =? 47); [apply IH|]. destruct (is_qh c); [cbn [fst]; apply fin_nonempty | apply IH]. }
  apply related_noauth; [exact Hne | apply spath_no_slash; reflexivity | exact W].
Qed.

(* class "empty reference": nothing left after cleaning, base can be a base *)
Definition in_class_empty_ref (sb : spec_url) (input : list N) : bool :=
  negb (has_opaque_path sb) && match spec_clean input with [] => true | _ => false end.

Theorem class_empty_ref dbg hp hpo hd shp shs input b sb : related dbg shs b sb ->
  in_class_empty_ref sb input = true ->
  agree_rel dbg shs (parse_url dbg hp hpo hd None (Some b) input) (spec_basic_url_parse shp input (Some sb)).
Proof.
  intros R Hc. unfold in_class_empty_ref in Hc. apply andb_true_iff in Hc. destruct Hc as [H1 H2].
  assert (has_opaque_path sb = false) as Hop by (destruct (has_opaque_path sb); [discriminate | reflexivity]).
  destruct (spec_clean input) eqn:E; [|discriminate].
  destruct (eq_empty_ref dbg hp hpo hd shp shs input b sb R Hop E) as (su & Hs & u & Hm & Hr).
  exists su. split; [exact Hs|]. right. exists u. split; assumption.
Qed.

(* the proved classes, assembled *)
(* comparison of outcomes: success with the same ten API strings (or the model's Overflow), or failure
   on both sides *)
Definition agree (dbg : bool) (shs : spec_host -> list N) (m : pres url) (s : parse_outcome) : Prop :=
  match s with
  | BDone su => m = PErr Overflow \/ exists u, m = POk u /\ api_of_model dbg u = Some (spec_api_list shs su)
  | BFailure _ => exists e, m = PErr e
  | BOutOfFuel => False
  end.

Lemma agree_of_ok dbg shs m s : agree_ok dbg shs m s -> agree dbg shs m s.
Proof. intros (su & -> & K). exact K. Qed.

Definition base_rel (dbg : bool) (shs : spec_host -> list N) (b : option url) (sb : option spec_url) : Prop :=
  match b, sb with
  | None, None => True
  | Some x, Some y => related dbg shs x y
  | _, _ => False
  end.

Definition in_proved_class (sbase : option spec_url) (input : list N) : bool :=
  match sbase with
  | None => in_class_opaque input || in_class_pathonly input
  | Some sb => in_class_fragment_only input || in_class_query_only sb input || in_class_opaque_base_fail sb input
               || in_class_empty_ref sb input
  end.

Theorem partial_equivalence dbg hp hpo hd shp shs input base sbase :
  usv_list input -> base_rel dbg shs base sbase -> in_proved_class sbase input = true ->
  agree dbg shs (parse_url dbg hp hpo hd None base input) (spec_basic_url_parse shp input sbase).
Proof.
  intros Hu Hb Hc. destruct base as [b|]; destruct sbase as [sb|]; cbn [base_rel] in Hb; try contradiction.
  - cbn [in_proved_class] in Hc. apply orb_true_iff in Hc. destruct Hc as [Hc|Hc];
      [apply orb_true_iff in Hc; destruct Hc as [Hc|Hc]; [apply orb_true_iff in Hc; destruct Hc as [Hc|Hc]|]|].
    + apply agree_of_ok, agree_rel_ok. apply class_fragment_only; assumption.
    + apply agree_of_ok, agree_rel_ok. apply class_query_only; assumption.
    + destruct (class_opaque_base_fail dbg hp hpo hd shp shs input b sb Hb Hc) as [[u ->] ->].
      cbn [agree]. eexists. reflexivity.
    + apply agree_of_ok, agree_rel_ok. apply class_empty_ref; assumption.
  - cbn [in_proved_class] in Hc. apply orb_true_iff in Hc. destruct Hc as [Hc|Hc].
    + apply agree_of_ok. apply class_opaque; assumption.
    + apply agree_of_ok, agree_rel_ok. apply class_pathonly; assumption.
Qed.

(* the Overflow disjunct, made precise *)
(* in every class with a successful outcome the model answers Overflow only if the href the Standard
   prescribes is longer than u32::MAX bytes *)
Theorem class_overflow_bound dbg hp hpo hd shp shs input base sbase su :
  usv_list input -> base_rel dbg shs base sbase -> in_proved_class sbase input = true ->
  parse_url dbg hp hpo hd None base input = PErr Overflow ->
  spec_basic_url_parse shp input sbase = BDone su ->
  U32_MAX_P < nlen (get_href shs su).
Proof.
  intros Hu Hb Hc E Hsu. destruct base as [b|]; destruct sbase as [sb|]; cbn [base_rel] in Hb; try contradiction.
  - cbn [in_proved_class] in Hc. apply orb_true_iff in Hc. destruct Hc as [Hc|Hc];
      [apply orb_true_iff in Hc; destruct Hc as [Hc|Hc]; [apply orb_true_iff in Hc; destruct Hc as [Hc|Hc]|]|].
    + unfold in_class_fragment_only in Hc.
      destruct (spec_clean input) as [|c f] eqn:Ec; [discriminate|]. cbn [starts_with_cp] in Hc.
      apply N.eqb_eq in Hc. subst c.
      exact (fragment_only_overflow_bound dbg hp hpo hd shp shs input b sb f su Hu Hb Ec E Hsu).
    + unfold in_class_query_only in Hc. apply andb_true_iff in Hc. destruct Hc as [H1 H2].
      destruct (spec_clean input) as [|c q] eqn:Ec; [discriminate|]. cbn [starts_with_cp] in H2.
      apply N.eqb_eq in H2. subst c.
      assert (has_opaque_path sb = false) as Hop by (destruct (has_opaque_path sb); [discriminate | reflexivity]).
      exact (query_only_overflow_bound dbg hp hpo hd shp shs input b sb q su Hu Hb Hop Ec E Hsu).
    + destruct (class_opaque_base_fail dbg hp hpo hd shp shs input b sb Hb Hc) as [[u Hf] _].
      rewrite Hf in Hsu. discriminate.
    + unfold in_class_empty_ref in Hc. apply andb_true_iff in Hc. destruct Hc as [H1 H2].
      assert (has_opaque_path sb = false) as Hop by (destruct (has_opaque_path sb); [discriminate | reflexivity]).
      destruct (spec_clean input) eqn:Ec; [|discriminate].
      destruct (eq_empty_ref dbg hp hpo hd shp shs input b sb Hb Hop Ec) as (su' & _ & u & K & _).
      rewrite K in E. discriminate.
  - cbn [in_proved_class] in Hc. apply orb_true_iff in Hc. destruct Hc as [Hc|Hc].
    + unfold in_class_opaque in Hc. rewrite spec_clean_is_ntnl_trim in Hc.
      destruct (spec_scheme (ntnl (input_new_trim_c0 input))) as [[sch rest]|] eqn:Es; [|discriminate].
      apply andb_true_iff in Hc. destruct Hc as [H1 H2].
      destruct (spec_scheme_model _ _ _ Es) as (rem & Hs & <-).
      assert (is_special_scheme sch = false) as Hns by (destruct (is_special_scheme sch); [discriminate | reflexivity]).
      assert (starts_with_cp 47 (ntnl rem) = false) as H47 by (destruct (starts_with_cp 47 (ntnl rem)); [discriminate | reflexivity]).
      exact (opaque_overflow_bound dbg hp hpo hd shp shs None input sch rem su Hu Hs (not_special_type sch Hns)
               (split_of_starts_with_cp rem H47) E Hsu).
    + unfold in_class_pathonly in Hc. rewrite spec_clean_is_ntnl_trim in Hc.
      destruct (spec_scheme (ntnl (input_new_trim_c0 input))) as [[sch rest]|] eqn:Es; [|discriminate].
      destruct rest as [|c0 rest']; [discriminate|].
      destruct (N.eq_dec c0 47) as [->|Hne].
      2:{ exfalso. destruct c0 as [|p]; [discriminate|]. do 6 (destruct p as [p|p|]; try discriminate). apply Hne. reflexivity. }
      apply andb_true_iff in Hc. destruct Hc as [Hc H3]. apply andb_true_iff in Hc. destruct Hc as [H1 H2].
      destruct (spec_scheme_model _ _ _ Es) as (rem & Hs & Hrem).
      assert (is_special_scheme sch = false) as Hns by (destruct (is_special_scheme sch); [discriminate | reflexivity]).
      assert (starts_with_cp 47 rest' = false) as H47 by (destruct (starts_with_cp 47 rest'); [discriminate | reflexivity]).
      destruct (slash_split rem rest' Hrem H47) as (rem' & Er' & Hss & Hsp). subst rest'.
      exact (pathonly_overflow_bound dbg hp hpo hd shp shs None input sch rem rem' su Hu Hs (not_special_type sch Hns)
               Hss Hsp Hrem H47 H3 E Hsu).
Qed.

(* the assembled statement with the precise Overflow clause *)
Definition agree_strict (dbg : bool) (shs : spec_host -> list N) (m : pres url) (s : parse_outcome) : Prop :=
  match s with
  | BDone su => (m = PErr Overflow /\ U32_MAX_P < nlen (get_href shs su))
                \/ exists u, m = POk u /\ api_of_model dbg u = Some (spec_api_list shs su)
  | BFailure _ => exists e, m = PErr e
  | BOutOfFuel => False
  end.

Theorem partial_equivalence_strict dbg hp hpo hd shp shs input base sbase :
  usv_list input -> base_rel dbg shs base sbase -> in_proved_class sbase input = true ->
  agree_strict dbg shs (parse_url dbg hp hpo hd None base input) (spec_basic_url_parse shp input sbase).
Proof.
  intros Hu Hb Hc.
  pose proof (partial_equivalence dbg hp hpo hd shp shs input base sbase Hu Hb Hc) as A.
  pose proof (class_overflow_bound dbg hp hpo hd shp shs input base sbase) as B.
  unfold agree, agree_strict in *.
  destruct (spec_basic_url_parse shp input sbase) as [su|u|]; [|exact A | exact A].
  destruct A as [E|K]; [left; split; [exact E|] | right; exact K].
  exact (B su Hu Hb Hc E eq_refl).
Qed.
