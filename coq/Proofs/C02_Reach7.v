(* Proofs/C02_Reach7.v - the histories of C02_Reach6.ReachC5 with
     - no premise on the encoding override (C02_Ovr: parse, every join arm), and
     - joins with EVERY reference that carries a non-file scheme, incl. the special scheme of the base followed by
       fewer than two slashes ("http:x" against an http base: C02_Ovr.join_same_Canon_g).
   ReachC6: parse (no base, non-file scheme, any override) ;; joins with every reference that has no scheme or a
   non-file scheme (any override) ;; joins of ANY Reachable4 record - file records included - with a base-ignoring
   absolute reference ;; every operation of the setter model outside known_step3 ;; query_pairs_mut
   sessions.  Every record of such a history is Canon, hence a fixpoint of re-parsing; ReachC6 is inside Reachable4.
   What Reachable4 has beyond ReachC6 is the file scheme only. *)
From RU Require Import Proofs.C15_Ser.
From Coq Require Import String.
From RU Require Import Base.Prelude Model.HostT Model.Host Model.UrlRecord Model.Parser Model.WF Model.QueryPairs
  Proofs.C02_Reach Proofs.C02_AuthParts Proofs.C02_AuthMain Proofs.C02_Hist Proofs.C02_Canon Proofs.C02_ReachPartial
  Proofs.C02_Form Proofs.C02_Reach3 Proofs.C02_SetHostCanon Proofs.C09_Host Proofs.C02_HistInst Proofs.C02_Reach4
  Proofs.C02_Stmt4 Proofs.C02_Reach5 Proofs.C02_JoinAbs Proofs.C02_JoinPath Proofs.C02_Reach6 Proofs.C02_Ovr.
Open Scope N_scope.
Open Scope list_scope.

(* references with the file scheme: the only ones the joins of ReachC6 leave out *)
Definition file_input (input : list N) : bool :=
  match parse_scheme CUrlParser (input_new_trim_c0 input) with
  | Some (sch, _) => match scheme_type_of sch with STFile => true | _ => false end
  | None => false
  end.

Section ReachC6.
Variable dbg : bool.
Variable hp hpo : list N -> result host.
Variable hd : host -> list N.
Hypothesis HOK : HostOK2 hp hpo hd.
Hypothesis HNE : host_nonempty hp hpo.

Let HRT : HostRT hp hpo hd := proj1 HOK.
Let HAb : host_above hp hpo hd := proj1 (proj2 HOK).

Inductive ReachC6 : url -> Prop :=
| RC6_parse ovr input u :
    usv_list input -> nonfile_input input = true ->
    parse_url dbg hp hpo hd ovr None input = POk u -> ReachC6 u
| RC6_join_rel ovr b input u :
    ReachC6 b -> usv_list input -> rel_ref input = true ->
    parse_url dbg hp hpo hd ovr (Some b) input = POk u -> ReachC6 u
| RC6_join_scheme ovr b input u :
    ReachC6 b -> usv_list input -> nonfile_input input = true ->
    parse_url dbg hp hpo hd ovr (Some b) input = POk u -> ReachC6 u
| RC6_join_abs_any ovr b input u :        (* base-ignoring absolute reference against ANY record of the full quantifier, file bases included *)
    Reachable4 dbg hp hpo hd b -> usv_list input -> abs_ref b input = true ->
    parse_url dbg hp hpo hd ovr (Some b) input = POk u -> ReachC6 u
| RC6_step u o u' :
    ReachC6 u -> op_args_ok o -> known_step3 dbg hp hpo hd u o = false ->
    apply_op dbg hp hpo hd u o = Some u' -> nlen (ser u') <= U32_MAX_P -> ReachC6 u'
| RC6_qpm u ops u' :
    ReachC6 u -> Forall op_ok ops -> query_pairs_session dbg u ops = Some u' ->
    nlen (ser u') <= U32_MAX_P -> ReachC6 u'.

Lemma ReachC5_C6 u : ReachC5 dbg hp hpo hd u -> ReachC6 u.
Proof.
  induction 1 as [ovr input u Hu Hn Hov Hp | ovr b input u Hr IH Hu Ht Hov Hp | ovr b input u Hr IH Hu Ht Hov Hp
                 | u o u' Hr IH Ha Hk Ho Hb | u ops u' Hr IH Hops Hs Hb].
  - exact (RC6_parse ovr input u Hu Hn Hp).
  - exact (RC6_join_rel ovr b input u IH Hu Ht Hp).
  - exact (RC6_join_scheme ovr b input u IH Hu (abs_ref_nonfile b input Ht) Hp).
  - exact (RC6_step u o u' IH Ha Hk Ho Hb).
  - exact (RC6_qpm u ops u' IH Hops Hs Hb).
Qed.

Theorem ReachC6_Canon u : ReachC6 u -> Canon hp hpo hd u.
Proof using HOK HNE HRT HAb.
  induction 1 as [ovr input u Hu Hn Hp | ovr b input u Hr IH Hu Ht Hp | ovr b input u Hr IH Hu Ht Hp
                 | ovr b input u Hr Hu Ht Hp | u o u' Hr IH Ha Hk Ho Hb | u ops u' Hr IH Hops Hs Hb].
  - exact (parse_Canon_g dbg hp hpo hd HRT HAb ovr input u Hu Hn Hp).
  - exact (join_rel_Canon_g dbg hp hpo hd HRT HAb ovr b input u IH Hu Ht Hp).
  - exact (join_nonfile_Canon_g dbg hp hpo hd HRT HAb ovr b input u IH Hu Ht Hp).
  - exact (join_abs_Canon_g dbg hp hpo hd HRT HAb ovr b input u Hu Ht Hp).
  - exact (canon_step_all dbg hp hpo hd HOK HNE u o u' IH Ha Hk Ho Hb).
  - exact (qpm_Canon dbg hp hpo hd HRT u ops u' IH Hops Hs Hb).
Qed.

Theorem reach_partial6 u : ReachC6 u ->
  Fixpoint_of_reparse dbg hp hpo hd u /\ wf_b u = true /\ ascii (ser u).
Proof using HOK HNE HRT HAb. intros H. exact (Canon_fixpoint dbg hp hpo hd HRT u (ReachC6_Canon u H)). Qed.

Theorem ReachC6_Reachable4 u : ReachC6 u -> Reachable4 dbg hp hpo hd u.
Proof using HOK HNE HRT HAb.
  assert (nd : forall v, ReachC6 v -> Known_file_drive v = false)
    by (intros v Hv; exact (Canon_not_file_drive hp hpo hd v (ReachC6_Canon v Hv))).
  intros H. pose proof (nd u H) as Hd. revert Hd.
  induction H as [ovr input u Hu Hn Hp | ovr b input u Hr IH Hu Ht Hp | ovr b input u Hr IH Hu Ht Hp
                 | ovr b input u Hr Hu Ht Hp | u o u' Hr IH Ha Hk Ho Hb | u ops u' Hr IH Hops Hs Hb]; intros Hd.
  - exact (R4_parse dbg hp hpo hd ovr input u Hu Hp Hd).
  - exact (R4_join dbg hp hpo hd ovr b input u (IH (nd b Hr)) Hu Hp Hd).
  - exact (R4_join dbg hp hpo hd ovr b input u (IH (nd b Hr)) Hu Hp Hd).
  - exact (R4_join dbg hp hpo hd ovr b input u Hr Hu Hp Hd).
  - exact (R4_step dbg hp hpo hd u o u' (IH (nd u Hr)) Ha Hk Ho Hd).
  - exact (R4_qpm dbg hp hpo hd u ops u' (IH (nd u Hr)) Hops Hs Hd).
Qed.

(* ReachC3, ReachC4, ReachC5 are inside ReachC6, hence inside Reachable4 *)
Corollary ReachC5_Reachable4 u : ReachC5 dbg hp hpo hd u -> Reachable4 dbg hp hpo hd u.
Proof using HOK HNE HRT HAb. intros H. exact (ReachC6_Reachable4 u (ReachC5_C6 u H)). Qed.

Corollary ReachC4_Reachable4 u : ReachC4 dbg hp hpo hd u -> Reachable4 dbg hp hpo hd u.
Proof using HOK HNE HRT HAb. intros H. exact (ReachC5_Reachable4 u (ReachC4_C5 dbg hp hpo hd u H)). Qed.

Corollary ReachC3_Reachable4 u : ReachC3 dbg hp hpo hd u -> Reachable4 dbg hp hpo hd u.
Proof using HOK HNE HRT HAb. intros H. exact (ReachC4_Reachable4 u (ReachC3_C4 dbg hp hpo hd u H)). Qed.

Corollary ReachC3_Reachable3 u : ReachC3 dbg hp hpo hd u -> Reachable3 dbg hp hpo hd u.
Proof using HOK HNE HRT HAb. intros H. exact (Reachable4_3 dbg hp hpo hd u (ReachC3_Reachable4 u H)). Qed.

(* the three input classes: a reference has no scheme, a non-file scheme, or the file scheme *)
Lemma ref_trichotomy input : rel_ref input = true \/ nonfile_input input = true \/ file_input input = true.
Proof.
  unfold rel_ref, nonfile_input, file_input.
  destruct (parse_scheme CUrlParser (input_new_trim_c0 input)) as [[sch rem]|]; [|left; reflexivity].
  destruct (scheme_type_of sch); [right; right | right; left | right; left]; reflexivity.
Qed.
End ReachC6.

Theorem reach_partial6_model dbg idna : IdnaOK idna -> forall u,
  ReachC6 dbg (host_parse idna) host_parse_opaque host_display u ->
  Fixpoint_of_reparse dbg (host_parse idna) host_parse_opaque host_display u /\ wf_b u = true /\ ascii (ser u).
Proof. intros OK u. exact (reach_partial6 dbg _ _ _ (HostOK2_model idna OK) (host_nonempty_model idna) u). Qed.

(* non-vacuity, on the host model (idna_clean) *)
(* an override that is as hostile as possible: it puts '#', tab, a non-ASCII byte, an apostrophe and a number that is
   not a byte in front of the text *)
Definition ovr_ex (s : list N) : list N := 35 :: 9 :: 233 :: 39 :: 300 :: s.

Definition m_parse_o (s : string) : option url :=
  match parse_url true mhp host_parse_opaque host_display (Some ovr_ex) None (B s) with POk u => Some u | _ => None end.
Definition m_join_o (b r : string) : option url :=
  match parse_url true mhp host_parse_opaque host_display None None (B b) with
  | POk bu => match parse_url true mhp host_parse_opaque host_display (Some ovr_ex) (Some bu) (B r) with POk u => Some u | _ => None end
  | _ => None
  end.

(* parse with the override: http://h/p?a b<TAB>c#f -> the two query parts "a b" and "c" go through the override one by
   one; joins: "http:x y/../z?k" against http://h/a/b?q#f (same scheme, no slash: the relative state) with and
   without override, "http:/x", "http:" (only the fragment goes), "http:#g", "?k'" with the override; the classes *)
Example reach6_example :
  match m_parse_o "http://h/p?a b	c#f" with
  | Some u => list_eqb (ser u) (B "http://h/p?%23%09%E9%27a%20b%23%09%E9%27c#f") && m_fix u | None => false end = true
  /\ match m_join_o "http://h/a/b?q#f" "http:x y/../z?k" with
     | Some u => list_eqb (ser u) (B "http://h/a/z?%23%09%E9%27k") && m_fix u | None => false end = true
  /\ match m_join "http://h/a/b?q#f" "http:x y/../z?k" with
     | Some u => list_eqb (ser u) (B "http://h/a/z?k") && m_fix u | None => false end = true
  /\ match m_join "http://h/a/b?q#f" "http:/x" with
     | Some u => list_eqb (ser u) (B "http://h/x") && m_fix u | None => false end = true
  /\ match m_join "http://h/a/b?q#f" "http:" with
     | Some u => list_eqb (ser u) (B "http://h/a/b?q") && m_fix u | None => false end = true
  /\ match m_join "http://h/a/b?q#f" "http:#g" with
     | Some u => list_eqb (ser u) (B "http://h/a/b?q#g") && m_fix u | None => false end = true
  /\ match m_join_o "http://h/a/b?q#f" "?k'" with
     | Some u => list_eqb (ser u) (B "http://h/a/b?%23%09%E9%27k%27") && m_fix u | None => false end = true
  /\ match parse_url true mhp host_parse_opaque host_display None None (B "http://h/a/b?q#f") with
     | POk bu => same_ref bu (B "http:x") && same_ref bu (B "http:/x") && negb (same_ref bu (B "http://x"))
                 && negb (same_ref bu (B "https:x")) && nonfile_input (B "http:x") && negb (rel_ref (B "http:x"))
                 && file_input (B "file:x") && negb (nonfile_input (B "file:x"))
     | _ => false end = true.
Proof. vm_compute. repeat split. Qed.

(* a file base and a base-ignoring absolute reference (RC6_join_abs_any): file:///a/b + "https:\\x/y z" = https://x/y%20z *)
Example reach6_example_filebase :
  match m_join "file:///a/b" "https:\\x/y z" with
  | Some u => list_eqb (ser u) (B "https://x/y%20z") && m_fix u | None => false end = true
  /\ match parse_url true mhp host_parse_opaque host_display None None (B "file:///a/b") with
     | POk bu => is_file bu && abs_ref bu (B "https:\\x/y z") && negb (Known_file_drive bu) | _ => false end = true.
Proof. vm_compute. repeat split. Qed.
