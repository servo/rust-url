(* Proofs/C03_ReachEx.v - the hypotheses of C03_reachability are met and reach03a is inhabited by a history
   that uses mutators outside reach03, the relation of C03_reachability_partial: host functions ex_hp (C02_AuthMain.v: texts
   over a host alphabet are domains) with a display ex_hd2 that also prints IP values. *)
From Coq Require Import String.
From RU Require Import Base.Prelude Model.HostT Model.UrlRecord Model.Parser Model.Setters Model.WF Model.FilePath
  Proofs.C02_Reach Proofs.C02_AuthMain Proofs.C06_Host Proofs.C03_ReachParts Proofs.C03_ReachHost Proofs.C03_ReachAll
  Proofs.C03_Reachability.
Open Scope string_scope.
Open Scope N_scope.
Open Scope list_scope.

Definition ex_hd2 (h : host) : list N :=
  match h with
  | HDomain d => d
  | HIpv4 _ => [49; 46; 50; 46; 51; 46; 52]      (* "1.2.3.4" for every address: enough for the layout *)
  | HIpv6 _ => [91; 58; 58; 49; 93]              (* "[::1]" *)
  end.

Lemma ex_hp_domain s h : ex_hp s = Ok h -> exists d, h = HDomain d.
Proof.
  unfold ex_hp. destruct s as [|c r]; [intros H; inversion H; eexists; reflexivity|].
  destruct (forallb ex_hostc (c :: r)); intros H; inversion H. eexists; reflexivity.
Qed.

Lemma ex2_host_wf : HostWf ex_hp ex_hp ex_hd2.
Proof.
  destruct ex_host_wf as (A & B0 & C). split; [|split; [|reflexivity]];
    intros s h E Hne; destruct (ex_hp_domain s h E) as (d & ->); [exact (A s _ E Hne) | exact (B0 s _ E Hne)].
Qed.

Lemma ex2_ip_disp : IpDisp ex_hd2.
Proof.
  intros h Hh. destruct h as [d|a|p]; cbn in Hh; [contradiction | |];
    unfold host_disp_ok; cbn [hi_of_host ex_hd2]; do 2 eexists; (split; [reflexivity|]); split; discriminate.
Qed.

Lemma usv_b (l : list N) : forallb (fun c => c <? 55296) l = true -> usv_list l.
Proof.
  intros H. apply Forall_forall. intros c Hc. rewrite forallb_forall in H. specialize (H c Hc).
  apply N.ltb_lt in H. left. exact H.
Qed.

Ltac usv_tac := apply usv_b; vm_compute; reflexivity.

(* One mutator call o on the record u of the latest hypothesis R : rel d hp hpo hd u, where step is the constructor of
   rel for such calls: the result u' is computed once, and the premises of step - the arguments are Rust values (tac),
   the call is outside the exclusion, apply_op = Some u', and whatever follows - are closed by evaluation on u'. *)
Ltac hist_step step o tac :=
  match goal with R : ?rel ?d ?hp ?hpo ?hd ?u |- _ =>
    let E := fresh "E" in let u1 := fresh "u" in let E' := fresh "E" in
    destruct (apply_op d hp hpo hd u o) as [u1|] eqn:E; [|vm_compute in E; discriminate];
    pose proof E as E'; vm_compute in E'; injection E' as <-;
    match type of E with apply_op _ _ _ _ _ _ = Some ?u' =>
      let R' := fresh "R" in
      assert (rel d hp hpo hd u') as R'
        by (apply (step d hp hpo hd u o u' R);
            [cbn [op_args_ok usv_opt]; tac | vm_compute; reflexivity | exact E | vm_compute; reflexivity ..]);
      clear R E
    end
  end.

(* parse "a://h:80/p?q#f"; set_host(Some "y"); quirks set_host "x:81" (host and port); path_segments_mut push "z";
   set_ip_host(1.2.3.4); set_host(None); set_host(None) again (a call that changes nothing); and, from the other
   constructor: from_file_path "/a b/c" then set_host(Some "h") and quirks set_pathname "d" *)
Definition reach03a_example_stmt : Prop :=
  exists u v, reach03a true ex_hp ex_hp ex_hd2 u /\ ser u = B "a:/p/z?q#f"
    /\ reach03a true ex_hp ex_hp ex_hd2 v /\ ser v = B "file://h/d".

Lemma reach03a_example : reach03a_example_stmt.
Proof.
  destruct (parse_url true ex_hp ex_hp ex_hd2 None None (B "a://h:80/p?q#f")) as [u0| |] eqn:E0;
    [|vm_compute in E0; discriminate ..].
  pose proof (RA_parse true ex_hp ex_hp ex_hd2 None _ u0 E0) as R0. vm_compute in E0. injection E0 as <-.
  hist_step RA_step (OSetHost (Some (B "y"))) usv_tac.
  hist_step RA_step (OQHost (B "x:81")) usv_tac.
  hist_step RA_step (OPathSegments [PPush (B "z")]) ltac:(constructor; [cbn [psm_op_ok]; usv_tac | constructor]).
  hist_step RA_step (OSetIpHost (HIpv4 16909060)) ltac:(cbn; lia).
  hist_step RA_step (OSetHost None) ltac:(exact I).
  hist_step RA_step (OSetHost None) ltac:(exact I).
  match goal with R : reach03a _ _ _ _ ?u |- _ => exists u end.
  destruct (from_file_path (B "/a b/c")) as [v0| |] eqn:F0; [|vm_compute in F0; discriminate ..].
  assert (reach03a true ex_hp ex_hp ex_hd2 v0) as S0.
  { apply (RA_file true ex_hp ex_hp ex_hd2 (B "/a b/c") v0); [|exact F0]. apply Forall_forall. intros c Hc.
    assert (forallb (fun c => c <? 256) (B "/a b/c") = true) as Hb by (vm_compute; reflexivity).
    rewrite forallb_forall in Hb. apply N.ltb_lt. exact (Hb c Hc). }
  vm_compute in F0. injection F0 as <-.
  hist_step RA_step (OSetHost (Some (B "h"))) usv_tac.
  hist_step RA_step (OQPathname (B "d")) usv_tac.
  match goal with R : reach03a _ _ _ _ ?v |- _ => exists v end.
  split; [assumption|]. split; [vm_compute; reflexivity|]. split; [assumption | vm_compute; reflexivity].
Qed.

(* every class of excl03 is needed: a wfh record, a call in the class, a result outside wf_b *)
(* host functions of C02_Reach.v: every text is a domain *)
Definition excl_witness (u : url) (o : op) : bool :=
  wf_b u && host_text_b u
  && match apply_op true toy_hp toy_hp toy_hd u o with
     | Some u' => excl03 u o u' && negb (wf_b u')
     | None => false
     end.

Definition w_marker : url := mkUrl (B "a:/.//p") 1 2 2 2 HI_None None 4 None None.
Definition w_port : url := mkUrl (B "a://h:80/") 1 4 4 5 HI_Domain (Some 80) 8 None None.
Definition w_2slash : url := mkUrl (B "a://h//x") 1 4 4 5 HI_Domain None 5 None None.
Definition w_opaque : url := mkUrl (B "a:b") 1 2 2 2 HI_None None 2 None None.
Definition w_noauth : url := mkUrl (B "a:/p") 1 2 2 2 HI_None None 2 None None.
Definition w_auth_end : url := mkUrl (B "http:///p") 4 7 7 7 HI_None None 7 None None.

Lemma excl03_witnesses :
  excl_witness w_marker (OSetHost (Some (B "h"))) = true            (* F-C03-5: "a://h/.//p" *)
  /\ excl_witness w_marker (OSetIpHost (HIpv4 1)) = true
  /\ excl_witness w_port (OSetHost (Some [])) = true                (* F-C02-4: "a://:80/" *)
  /\ excl_witness w_2slash (OSetHost None) = true                   (* F-C02-2: "a://x" *)
  /\ excl_witness w_opaque (OSetPath (B "?")) = true                (* F-C02-3: "a:?" with the '?' in the path *)
  /\ excl_witness w_noauth (OSetPath (B "//x")) = true              (* F-C02-8: "a://x" *)
  /\ excl_witness w_noauth (OQPathname (B "//x")) = true
  /\ excl_witness w_marker (OSetPath (B "/q")) = true               (* F-C03-5: "a:/./q" *)
  /\ excl_witness w_marker (OPathSegments [PClear]) = true
  /\ excl_witness w_auth_end (OSetPath (B "x")) = true.             (* "http://x" with path "x": not a reachable receiver *)
Proof. vm_compute. repeat split. Qed.
