(* Proofs/C02_SetScheme.v - L2 for Url::set_scheme (and url::quirks::set_protocol, which is set_scheme on the text in
   front of the first ':') on the four canonical forms.  The new scheme text is the output of the scheme state
   (setter context): lower-case, canonical.  The code refuses a change between special and non-special and "file" on a
   URL with authority, so the scheme kind of the record stays.  The serialization keeps everything behind the scheme,
   every offset moves by the difference of the scheme lengths; afterwards the code calls set_port(previous port),
   which on a special scheme drops a port equal to the NEW scheme's default (http://h:443/ -> https://h/): the
   intermediate record may violate the port clause of the canonical form, the result does not. *)
From RU Require Import Base.Prelude Base.Utf8 Base.Utf8Facts Model.AsciiSet Gen.Tables
  Model.PercentEncoding Model.HostT Model.UrlRecord Model.Parser Model.Setters Model.WF
  Proofs.ListN Proofs.C14_Set Proofs.C14_Enc Proofs.C14_Views Proofs.C02_Enc Proofs.C02_Parts
  Proofs.C02_Opaque Proofs.C02_Path Proofs.C02_PathL1 Proofs.C02_Reach Proofs.C16_RT Proofs.C02_AuthParts
  Proofs.C02_Auth Proofs.C02_AuthWf Proofs.C02_PathSp Proofs.C02_AuthSp Proofs.C02_AuthMain Proofs.C02_SetQF
  Proofs.C02_Canon Proofs.C02_SetPort Proofs.C02_SetHostFrame.
Open Scope N_scope.
Open Scope list_scope.

(* the scheme state of the setter context, like that of the parser, yields a canonical scheme *)
Theorem parse_scheme_out_g ctx l sch rem : parse_scheme ctx l = Some (sch, rem) -> scheme_canon sch = true.
Proof. exact (C02_Parts.parse_scheme_out_g ctx l sch rem). Qed.

(* the frame: everything behind the scheme, offsets relative to the scheme's end *)
Definition sf_url (sch Z : list N) (due dhs dhe : N) (hi : host_internal) (pt : option N) (dps : N) (q f : option (list N)) : url :=
  mkUrl ((sch ++ Z) ++ qf_text q f) (nlen sch) (nlen sch + due) (nlen sch + dhs) (nlen sch + dhe) hi pt (nlen sch + dps)
        (qf_qs (nlen (sch ++ Z)) q) (qf_fs (nlen (sch ++ Z)) q f).

Section Swap.
Variable dbg : bool.

Lemma adjust_plus a d b : adjust dbg (a + d) a b = Some (b + d).
Proof. rewrite adjust_ge by lia. f_equal. lia. Qed.

Lemma swap_frame sch Z due dhs dhe hi pt dps q f ns (K : url -> option (url * status)) :
  (let u := sf_url sch Z due dhs dhe hi pt dps q f in
   ue <- adjust dbg (username_end u) (scheme_end u) (nlen ns) ;;
   hs <- adjust dbg (host_start u) (scheme_end u) (nlen ns) ;;
   he <- adjust dbg (host_end u) (scheme_end u) (nlen ns) ;;
   ps <- adjust dbg (path_start u) (scheme_end u) (nlen ns) ;;
   qs <- adjust_opt dbg (query_start u) (scheme_end u) (nlen ns) ;;
   fs <- adjust_opt dbg (fragment_start u) (scheme_end u) (nlen ns) ;;
   rest <- u_slice_from u (scheme_end u) ;;
   K (mkUrl (ns ++ rest) (nlen ns) ue hs he (hosti u) (port u) ps qs fs))
  = K (sf_url ns Z due dhs dhe hi pt dps q f).
Proof.
  cbv zeta. unfold sf_url at 1 2 3 4 5 6 7 8 9 10 11 12 13 14.
  cbn [username_end scheme_end host_start host_end path_start query_start fragment_start hosti port].
  rewrite !adjust_plus. cbn [bindo].
  rewrite adjust_qs, adjust_fs. cbn [bindo].
  unfold u_slice_from, sf_url at 1. cbn [ser]. rewrite <- app_assoc.
  rewrite slice_from_o_some by (rewrite nlen_app; lia). rewrite nskipn_app_len. cbn [bindo].
  f_equal. unfold sf_url. rewrite <- !(nlen_app ns Z). rewrite <- !app_assoc. reflexivity.
Qed.
End Swap.

(* the four forms in the frame *)
Lemma opaque_url_sf sch P q f : opaque_url sch P q f = sf_url sch (58 :: P) 1 1 1 HI_None None 1 q f.
Proof.
  unfold opaque_url, sf_url, opaque_ser, opaque_pre. rewrite !nlen_app. change (nlen [58]) with 1.
  rewrite nlen_cons. rewrite <- !(app_assoc sch). rewrite !N.add_assoc. reflexivity.
Qed.

Lemma noauth_url_sf sch T q f :
  noauth_url sch T q f = sf_url sch (58 :: marker_of T ++ T) 1 1 1 HI_None None (1 + nlen (marker_of T)) q f.
Proof.
  unfold noauth_url, sf_url, noauth_ser, noauth_pre. rewrite !nlen_app. change (nlen [58]) with 1.
  rewrite nlen_cons, nlen_app. rewrite <- !(app_assoc sch). rewrite !N.add_assoc. reflexivity.
Qed.

Lemma auth_url_sf hd sch ui h pt p q f :
  auth_url hd sch ui h pt p q f
  = sf_url sch ([58; 47; 47] ++ ui_text ui ++ hd h ++ port_text pt ++ pth_text p) (3 + ui_ulen ui) (3 + nlen (ui_text ui))
           (3 + nlen (ui_text ui) + nlen (hd h)) (hi_of_host h) pt (3 + nlen (ui_text ui) + nlen (hd h) + nlen (port_text pt)) q f.
Proof.
  unfold auth_url, sf_url, auth_ser, auth_pre. rewrite front_len. unfold auth_front.
  replace (((sch ++ [58; 47; 47]) ++ ui_text ui ++ hd h ++ port_text pt) ++ pth_text p)
    with (sch ++ [58; 47; 47] ++ ui_text ui ++ hd h ++ port_text pt ++ pth_text p) by (rewrite <- !app_assoc; reflexivity).
  rewrite !N.add_assoc. reflexivity.
Qed.

Section SetSchemeFrame.
Variable dbg : bool.

Lemma sf_scheme sch Z due dhs dhe hi pt dps q f : scheme (sf_url sch Z due dhs dhe hi pt dps q f) = Some sch.
Proof.
  unfold sf_url. rewrite <- !app_assoc. apply scheme_prefix.
Qed.

Theorem set_scheme_sf sch Z due dhs dhe hi pt dps q f x r :
  let U := sf_url sch Z due dhs dhe hi pt dps q f in
  set_scheme dbg U x = Some r ->
  r = (U, SErrUnit) \/
  exists ns rem ha, parse_scheme CSetter (input_new_no_trim x) = Some (ns, rem)
     /\ has_authority dbg U = Some ha
     /\ st_is_special (scheme_type_of ns) = st_is_special (scheme_type_of sch)
     /\ st_is_file (scheme_type_of ns) && ha = false
     /\ exists r', set_port dbg (sf_url ns Z due dhs dhe hi pt dps q f) pt = Some r' /\ r = (fst r', SOk).
Proof.
  intros U. unfold set_scheme.
  destruct (parse_scheme CSetter (input_new_no_trim x)) as [[ns rem]|] eqn:Ep.
  2:{ intros E. inversion E; subst. left; reflexivity. }
  unfold u_scheme_type. unfold U at 1. rewrite sf_scheme. cbn [bindo].
  destruct (has_authority dbg U) as [ha|] eqn:Eh; [|discriminate]. cbn [bindo].
  destruct ((st_is_special (scheme_type_of ns) && negb (st_is_special (scheme_type_of sch)))
            || (negb (st_is_special (scheme_type_of ns)) && st_is_special (scheme_type_of sch))
            || (st_is_file (scheme_type_of ns) && ha)) eqn:E1.
  { intros E. inversion E; subst. left; reflexivity. }
  destruct (negb (inp_is_empty rem) || (negb (has_host U) && st_is_special (scheme_type_of ns))) eqn:E2.
  { intros E. inversion E; subst. left; reflexivity. }
  pose proof (swap_frame dbg sch Z due dhs dhe hi pt dps q f ns
                (fun u1 => r <- set_port dbg u1 (port u1) ;; Some (fst r, SOk))) as Hs.
  cbv beta zeta in Hs. cbv zeta. fold U in Hs. rewrite Hs. clear Hs.
  change (port (sf_url ns Z due dhs dhe hi pt dps q f)) with pt.
  destruct (set_port dbg (sf_url ns Z due dhs dhe hi pt dps q f) pt) as [r'|] eqn:Es; [|discriminate].
  cbn [bindo]. intros E. inversion E; subst r. right. exists ns, rem, ha.
  apply orb_false_iff in E1. destruct E1 as [E1 E1c]. apply orb_false_iff in E1. destruct E1 as [E1a E1b].
  split; [reflexivity|]. split; [reflexivity|]. split.
  - destruct (st_is_special (scheme_type_of ns)); destruct (st_is_special (scheme_type_of sch)); try reflexivity; discriminate.
  - split; [exact E1c|]. exists r'. split; [exact Es | reflexivity].
Qed.
End SetSchemeFrame.

Section SchemeCanon.
Variable dbg : bool.
Variable hp hpo : list N -> result host.
Variable hd : host -> list N.
Hypothesis HRT : HostRT hp hpo hd.

Notation auth_ok := (auth_ok hp hpo hd).
Notation auth_url := (auth_url hd).
Notation auth_ser := (auth_ser hd).
Notation host_ok := (host_ok hp hpo hd).
Notation Canon := (Canon hp hpo hd).

Lemma special_same_ns t : st_is_special t = false -> t = STNotSpecial.
Proof. destruct t; try discriminate; reflexivity. Qed.

Lemma auth_has_authority sch ui h pt p q f : has_authority dbg (auth_url sch ui h pt p q f) = Some true.
Proof. unfold auth_url. rewrite auth_ser_shape. apply has_authority_prefix. Qed.

(* the port set_scheme leaves: the old one unless it is the new scheme's default *)
Definition scheme_pt (ns : list N) (pt : option N) : option N :=
  match pt with Some x => if opt_eqb pt (default_port ns) then None else Some x | None => None end.

Lemma scheme_pt_ok ns dflt pt : port_ok dflt pt -> port_ok (default_port ns) (scheme_pt ns pt).
Proof.
  destruct pt as [x|]; cbn [scheme_pt port_ok]; [|tauto]. intros [Hle _].
  destruct (opt_eqb (Some x) (default_port ns)) eqn:Eo; [exact I|]. split; [exact Hle|].
  intros Ed. rewrite Ed in Eo. cbn [opt_eqb] in Eo. rewrite N.eqb_refl in Eo. discriminate Eo.
Qed.

Theorem set_scheme_auth st sch ui h pt p q f x u' s : auth_ok st sch ui h pt p q f -> st_is_file st = false ->
  set_scheme dbg (auth_url sch ui h pt p q f) x = Some (u', s) -> nlen (ser u') <= U32_MAX_P ->
  exists ns pt', auth_ok st ns ui h pt' p q f /\ u' = auth_url ns ui h pt' p q f.
Proof.
  intros K Hnf E Hb. rewrite auth_url_sf in E. apply set_scheme_sf in E. rewrite <- !auth_url_sf in E.
  destruct E as [E | (ns & rem & ha & Ep & Eh & Esp & Efile & r' & Er & E)].
  - inversion E; subst. exists sch, pt. split; [exact K | reflexivity].
  - rewrite <- auth_url_sf in Er. rewrite auth_has_authority in Eh. inversion Eh; subst ha. rewrite andb_true_r in Efile.
    pose proof (parse_scheme_out_g _ _ _ _ Ep) as Hcan.
    assert (scheme_type_of ns = st) as Est.
    { rewrite (ak_st _ _ _ _ _ _ _ _ _ _ _ K) in Esp. destruct st; [discriminate Hnf| |].
      - destruct (scheme_type_of ns); try discriminate; reflexivity.
      - exact (special_same_ns _ Esp). }
    inversion E; subst u' s. clear E.
    unfold set_port in Er. rewrite (auth_cannot_port_g hp hpo hd st ns ui h pt p q f Est Hnf (ak_h _ _ _ _ _ _ _ _ _ _ _ K)) in Er.
    cbn [bindo] in Er.
    assert (forall pt', (h = HDomain [] -> pt' = None) -> port_ok (default_port ns) pt' ->
              nlen (auth_ser ns ui h pt' p q f) <= U32_MAX_P -> auth_ok st ns ui h pt' p q f) as Hok.
    { intros pt' Hemp Hpo Hlen. destruct K as [Ksch Kst Kui Kh Kemp Kpt Kp Kq Kf Kb Kbq Kbf].
      destruct (qf_bounds _ _ _ _ Hlen) as [B1 B2]. constructor; try assumption.
      - intros Ee. split; [exact (proj1 (Kemp Ee)) | exact (Hemp Ee)].
      - unfold C02_Auth.auth_ser, auth_pre in Hlen. rewrite !nlen_app in Hlen. lia. }
    destruct (match h with HDomain [] => true | _ => false end) eqn:Ehe.
    + inversion Er; subst r'. cbn [fst] in *. exists ns, pt. split; [|reflexivity].
      apply Hok; [intros Ee; exact (proj2 (ak_emp _ _ _ _ _ _ _ _ _ _ _ K Ee)) | | exact Hb].
      assert (h = HDomain []) as Ee by (destruct h as [[|c d]|a|pcs]; try discriminate Ehe; reflexivity).
      rewrite (proj2 (ak_emp _ _ _ _ _ _ _ _ _ _ _ K Ee)). exact I.
    + rewrite auth_scheme in Er. cbn [bindo] in Er. rewrite set_port_internal_auth in Er. cbn [bindo] in Er.
      inversion Er; subst r'. cbn [fst] in *.
      exists ns, (scheme_pt ns pt). split; [|reflexivity]. apply Hok; [| | exact Hb].
      * intros Ee. rewrite Ee in Ehe. discriminate Ehe.
      * exact (scheme_pt_ok ns _ pt (ak_pt _ _ _ _ _ _ _ _ _ _ _ K)).
Qed.

(* the forms without authority: no host, so the final set_port refuses and the record keeps the swapped scheme *)
Lemma set_port_nohost u pt : hosti u = HI_None -> set_port dbg u pt = Some (u, SErrUnit).
Proof. intros E. unfold set_port, cannot_have_credentials_or_port, has_host. rewrite E. reflexivity. Qed.

Theorem set_scheme_opaque sch P q f x u' s : opaque_ok sch P q f ->
  set_scheme dbg (opaque_url sch P q f) x = Some (u', s) -> nlen (ser u') <= U32_MAX_P ->
  exists ns, opaque_ok ns P q f /\ u' = opaque_url ns P q f.
Proof.
  intros K E Hb. rewrite opaque_url_sf in E. apply set_scheme_sf in E. rewrite <- !opaque_url_sf in E.
  destruct E as [E | (ns & rem & ha & Ep & Eh & Esp & Efile & r' & Er & E)].
  - inversion E; subst. exists sch. split; [exact K | reflexivity].
  - rewrite <- opaque_url_sf in Er. rewrite set_port_nohost in Er by reflexivity. inversion Er; subst r'. cbn [fst] in E.
    inversion E; subst u' s. clear E Er. exists ns. split; [|reflexivity].
    pose proof (parse_scheme_out_g _ _ _ _ Ep) as Hcan.
    rewrite (ok_ns _ _ _ _ K) in Esp. apply special_same_ns in Esp.
    destruct K as [Ksch Kns KP KPq KPh Kq Kf Klast Kb1 Kbq Kbf]. cbn [opaque_url ser] in Hb.
    destruct (qf_bounds _ _ _ _ Hb) as [B1 B2]. constructor; try assumption.
    unfold opaque_ser, opaque_pre in Hb. rewrite !nlen_app in Hb. rewrite nlen_app. lia.
Qed.

Theorem set_scheme_noauth sch segs last q f x u' s : noauth_ok sch segs last q f ->
  set_scheme dbg (noauth_url sch (path_text segs last) q f) x = Some (u', s) -> nlen (ser u') <= U32_MAX_P ->
  exists ns, noauth_ok ns segs last q f /\ u' = noauth_url ns (path_text segs last) q f.
Proof.
  intros K E Hb. rewrite noauth_url_sf in E. apply set_scheme_sf in E. rewrite <- !noauth_url_sf in E.
  destruct E as [E | (ns & rem & ha & Ep & Eh & Esp & Efile & r' & Er & E)].
  - inversion E; subst. exists sch. split; [exact K | reflexivity].
  - rewrite <- noauth_url_sf in Er. rewrite set_port_nohost in Er by reflexivity. inversion Er; subst r'. cbn [fst] in E.
    inversion E; subst u' s. clear E Er. exists ns. split; [|reflexivity].
    pose proof (parse_scheme_out_g _ _ _ _ Ep) as Hcan.
    rewrite (nk_ns _ _ _ _ _ K) in Esp. apply special_same_ns in Esp.
    destruct K as [Ksch Kns Ksegs Klast Kq Kf Kb1 Kbq Kbf]. cbn [noauth_url ser] in Hb.
    destruct (qf_bounds _ _ _ _ Hb) as [B1 B2]. constructor; try assumption.
    unfold noauth_ser, noauth_pre in Hb. rewrite !nlen_app in Hb. rewrite nlen_app. lia.
Qed.

(* L2: set_scheme keeps Canon, for every argument *)
Theorem set_scheme_Canon u x u' s : Canon u ->
  set_scheme dbg u x = Some (u', s) -> nlen (ser u') <= U32_MAX_P -> Canon u'.
Proof.
  intros C E Hb. destruct (Canon_cases hp hpo hd u C) as [(sch & P & q & f & K & ->) | [(sch & segs & last & q & f & K & ->) | (st & sch & ui & h & pt & p & q & f & Hnf & K & Kp & ->)]].
  - destruct (set_scheme_opaque sch P q f x u' s K E Hb) as (ns & K' & ->). exact (Canon_opaque hp hpo hd ns P q f K').
  - destruct (set_scheme_noauth sch segs last q f x u' s K E Hb) as (ns & K' & ->). exact (Canon_noauth hp hpo hd ns segs last q f K').
  - destruct (set_scheme_auth st sch ui h pt p q f x u' s K Hnf E Hb) as (ns & pt' & K' & ->).
    exact (Canon_auth_st hp hpo hd st ns ui h pt' p q f Hnf K' Kp).
Qed.

(* url::quirks::set_protocol *)
Theorem q_set_protocol_Canon u x u' s : Canon u ->
  q_set_protocol dbg u x = Some (u', s) -> nlen (ser u') <= U32_MAX_P -> Canon u'.
Proof. unfold q_set_protocol. apply set_scheme_Canon. Qed.
End SchemeCanon.
