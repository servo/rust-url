(* Proofs/Idna_C12d_Round.v - C12, the clauses about the Unicode form (a_of_u, u_idem) for ALL accepted names outside
   Known_C12 and Known_C10_long: the restriction PunyIn d = false of Proofs/Idna_C12c_Round.v is lifted.
   For a pair (dbl, MixedCasePunycode m) of the accepted run (an xn-- INPUT label m, decoded to dec, validated to dbl)
   ToUnicode shows dbl and ToASCII writes the lower-cased m; the label step on the UTF-8 form of dbl gives back dbl with
   the entry AalOther (pres_unicode), for which ToASCII writes xn-- and encode_internal dbl.  Two facts close the case:
     - dbl = dec.  after_punycode_decode compares normalize_validate dec with dec by a zip, which stops at the shorter
       text: NvNoTrunc excludes a shorter normalised text, NOTHING among the seven premises of C12_statement4 excludes a
       longer one.  The premise that excludes it is NvNoGrow (normalize_validate l = l ++ t -> t = []); see Proofs/Idna_C12d_Stmt5.v.
     - encode_internal (decode U8Internal p) = map to_lower p (Proofs/Idna_C12d_EncDec.v). *)
From RU Require Import Base.Prelude Base.Utf8 Base.Utf8Facts Base.U32_c13 Gen.Tables Model.Punycode Model.Uts46
  Proofs.C13_Ascii Proofs.Idna_Sim Proofs.Idna_Api Proofs.Idna_Known Proofs.Idna_Hyp Proofs.Idna_Redisc
  Proofs.Idna_C10_Deny Proofs.Idna_C10_Puny Proofs.Idna_C10_Prefix Proofs.Idna_C10_Inner Proofs.Idna_C10_Walk
  Proofs.Idna_C10b_Long Proofs.Idna_C10b_AsciiInner Proofs.Idna_C10b_AsciiWalk Proofs.Idna_C10b_Stmt
  Proofs.Idna_WalkFun Proofs.Idna_WalkInv Proofs.Idna_WalkApi Proofs.Idna_WalkEnc Proofs.Idna_PunyRT
  Proofs.Idna_C10c_Puny Proofs.Idna_C10c_Start Proofs.Idna_C10c_Drun Proofs.Idna_C10c_Loop Proofs.Idna_C10c_Rerun
  Proofs.Idna_C10c_Idem Proofs.Idna_C10c_Example Proofs.Idna_Mark Proofs.Idna_C12 Proofs.Idna_C12b_Stmt3
  Proofs.Idna_C10d_CaseLabel Proofs.Idna_C10d_CaseLoop Proofs.Idna_C10d_Case Proofs.Idna_C12c_Virtual Proofs.Idna_C12c_UofA
  Proofs.Idna_C12c_Stmt4 Proofs.Idna_C12c_ULabel Proofs.Idna_C12c_Round Proofs.Idna_C12d_EncDec.

(* normalize_validate never returns its argument followed by more text (the real one: a canonically equivalent text
   of which the argument is a proper prefix does not exist; an invalid character is replaced one for one) *)
Definition NvNoGrow (A : adapter) : Prop := forall l t, normalize_validate A l = l ++ t -> t = [].

Section Round2.
Variable A : adapter.
Variable cfg : bool.
Variable deny : N.
Variable hy : hyphens.
Hypothesis HU : DenyUpper deny.
Hypothesis HL : LdhFree deny.
Hypothesis HOK : AdapterOK A.
Hypothesis HUSV : AdapterUSV A.
Hypothesis HNT : NvNoTrunc A.
Hypothesis HNI : NvIdem A.
Hypothesis HNM : AsciiNoMark A.
Hypothesis HMP : MapPrefix A.
Hypothesis HMF : NvMapFix A.
Hypothesis HNG : NvNoGrow A.

Notation PairOK := (PairOK A cfg deny hy).
Notation pres := (pres A cfg deny hy).
Notation proc_all := (proc_all A cfg deny hy).

(* an accepted xn-- input label: the validated text is the decoded text *)
Lemma puny_dbl_dec dec dbl : after_punycode_decode A true (dd deny) dec false = SOk (dbl, false) ->
  dbl = dec /\ normalize_validate A dbl = dbl /\ Forall (gc (dd deny)) dbl /\ usv_list dbl.
Proof.
  intros Hapd. destruct (apd_inv A deny dec dbl false Hapd) as (_ & Hd & Hg & Hz).
  assert (E : dbl = dec).
  { destruct (zip_mark_none _ _ Hz) as [[t Ht]|[t Ht]].
    - rewrite Hd in Ht. pose proof (HNT dec t Ht) as ->. rewrite app_nil_r in Ht. rewrite Hd. symmetry. exact Ht.
    - rewrite Hd in Ht. pose proof (HNG dec t Ht) as ->. rewrite app_nil_r in Ht. rewrite Hd. exact Ht. }
  split; [exact E|]. split; [rewrite E; rewrite E in Hd; symmetry; exact Hd|]. split; [exact Hg|].
  rewrite Hd. apply (usv_norm A HUSV).
Qed.

(* the pair of an accepted xn-- input label *)
Lemma pair_rtu_puny m dbl o : PairOK dbl (MixedCasePunycode m) -> starts_with dbl XN_PREFIX = false ->
  out_label cfg is_ascii_l dbl (MixedCasePunycode m) = inl o ->
  pres (utf8_encode dbl) = SOk (dbl, false, [AalOther]) /\ out_label cfg is_ascii_l dbl AalOther = inl o /\
  nodot (utf8_encode dbl) /\ usv_list dbl.
Proof.
  intros HP Hx Ho.
  inversion HP as [|m' dec dbl' Ha Hn Hp Hc Hd Hapd Hchk Hna E1 E2|]; subst m' dbl'.
  destruct (puny_dbl_dec dec dbl Hapd) as (Edd & Hnv & Hg & Hu).
  cbn [out_label] in Ho. rewrite Hna in Ho. inversion Ho. subst o. clear Ho.
  split; [exact (pres_unicode A cfg deny hy HU HMP HMF dbl Hnv Hg Hchk Hu Hna Hx)|].
  split; [|split; [exact (utf8_encode_nodot dbl (gc_all_nodot deny dbl Hg))|exact Hu]].
  cbn [out_label]. rewrite Hna. unfold enc_label.
  destruct (xn_prefix_spec m Ha Hp) as (a & b & r & Em & Xa & Xb).
  assert (Hr : skipn 4 m = r) by (rewrite Em; reflexivity).
  assert (Har : Forall (fun b => b < 128) r).
  { rewrite Em in Ha. inversion Ha as [|? ? _ H1]; subst. inversion H1 as [|? ? _ H2]; subst.
    inversion H2 as [|? ? _ H3]; subst. inversion H3 as [|? ? _ H4]; subst. exact H4. }
  assert (Hlr : C13_Enc.len r <= U32_MAX).
  { unfold puny_cond in Hc. apply andb_true_iff in Hc. destruct Hc as [_ Hc]. apply N.leb_le in Hc.
    rewrite Em in Hc. unfold len in Hc. cbn [length] in Hc.
    change PUNYCODE_DECODE_MAX_INPUT_LENGTH with 2000 in Hc. unfold C13_Enc.len, U32_MAX. lia. }
  pose proof (chk_len A cfg hy dbl Hchk Hna) as Hlen.
  assert (Hl1000 : (length dbl <= 1000)%nat).
  { change PUNYCODE_ENCODE_MAX_INPUT_LENGTH with 1000 in Hlen. unfold len in Hlen. lia. }
  rewrite Hr in Hd. rewrite <- Edd in Hd.
  rewrite (enc_dec_internal cfg r dbl Har Hlr Hd Hu Hl1000).
  f_equal. rewrite Em. cbn [map app XN_PREFIX]. destruct Xa as [-> | ->]; destruct Xb as [-> | ->]; reflexivity.
Qed.

(* one pair, every kind of entry *)
Lemma pair_rtu2 dbl e o : PairOK dbl e -> xn_free dbl e ->
  out_label cfg is_ascii_l dbl e = inl o -> long_puny_label o = false ->
  exists ou e3, out_label cfg uT dbl e = inl ou /\ pres (utf8_encode ou) = SOk (dbl, false, [e3]) /\
    out_label cfg is_ascii_l dbl e3 = inl o /\ out_label cfg uT dbl e3 = inl ou /\ nodot (utf8_encode ou) /\ usv_list ou.
Proof.
  intros HP Hx Ho Hlong. destruct (is_mcp e) eqn:Em.
  - destruct e as [m|m|]; try discriminate Em. cbn [xn_free] in Hx.
    destruct (pair_rtu_puny m dbl o HP Hx Ho) as (P1 & P2 & P3 & P4).
    exists dbl, AalOther. repeat split; assumption.
  - exact (pair_rtu A cfg deny hy HU HL HMP HMF dbl e o HP Em Hx Ho Hlong).
Qed.

(* the two clauses, every accepted name *)
Theorem round_unicode2 d b a : bytes d -> to_ascii A cfg d deny hy DIgnore = Ok (b, a) -> Known_C10_long a = false ->
  Known_C12 A cfg d deny hy = false ->
  exists bu u b' bu', to_unicode A cfg d deny hy = UI bu u false /\
    to_ascii A cfg (utf8_encode u) deny hy DIgnore = Ok (b', a) /\
    to_unicode A cfg (utf8_encode u) deny hy = UI bu' u false /\ usv_list u.
Proof.
  intros Hb H Hlong HK12.
  apply (round_unicode_gen A cfg deny hy HU HL HOK HUSV HNT HNI HNM HMP (fun _ => false)
           (fun dbl e o HP _ => pair_rtu2 dbl e o HP) d b a Hb H Hlong HK12).
  intros ptu bd he db ap _. clear. induction ap as [|e r IH]; [reflexivity|exact IH].
Qed.
End Round2.

(* three of the four clauses, every accepted name *)
Theorem c12_round2 A cfg : AdapterOK A -> AdapterUSV A -> NvNoTrunc A -> NvIdem A -> AsciiNoMark A -> MapPrefix A -> NvMapFix A ->
  NvNoGrow A ->
  forall d deny hy b a, bytes d -> valid_deny deny -> Known_C12 A cfg d deny hy = false ->
  to_ascii A cfg d deny hy DIgnore = Ok (b, a) -> Known_C10_long a = false ->
  let u := ui_text (to_unicode A cfg d deny hy) in
  (ui_text (to_unicode A cfg a deny hy) = u /\ ui_err (to_unicode A cfg a deny hy) = false) /\
  (exists b', to_ascii A cfg (utf8_encode u) deny hy DIgnore = Ok (b', a)) /\
  (ui_text (to_unicode A cfg (utf8_encode u) deny hy) = u /\ ui_err (to_unicode A cfg (utf8_encode u) deny hy) = false).
Proof.
  intros HOK HUSV HNT HNI HNM HMP HMF HNG d deny hy b a Hb Hv HK H Hlong. destruct (valid_deny_facts deny Hv) as [HU HL].
  destruct (c12_u_of_a A cfg HOK HUSV HNT HNI HNM HMP d deny hy b a Hb Hv H Hlong) as (C1 & C2 & _).
  destruct (round_unicode2 A cfg deny hy HU HL HOK HUSV HNT HNI HNM HMP HMF HNG d b a Hb H Hlong HK) as (bu & u & b' & bu' & E1 & E2 & E3 & _).
  cbv zeta. rewrite E1. cbn [ui_text]. split; [split; [rewrite C1, E1; reflexivity|exact C2]|].
  split; [exists b'; exact E2|]. rewrite E3. split; reflexivity.
Qed.

(* the Unicode form consists of scalar values (so its UTF-8 form is a byte string) *)
Theorem c12_unicode_usv A cfg : AdapterOK A -> AdapterUSV A -> NvNoTrunc A -> NvIdem A -> AsciiNoMark A -> MapPrefix A -> NvMapFix A ->
  NvNoGrow A ->
  forall d deny hy b a, bytes d -> valid_deny deny -> Known_C12 A cfg d deny hy = false ->
  to_ascii A cfg d deny hy DIgnore = Ok (b, a) -> Known_C10_long a = false ->
  usv_list (ui_text (to_unicode A cfg d deny hy)).
Proof.
  intros HOK HUSV HNT HNI HNM HMP HMF HNG d deny hy b a Hb Hv HK H Hlong. destruct (valid_deny_facts deny Hv) as [HU HL].
  destruct (round_unicode2 A cfg deny hy HU HL HOK HUSV HNT HNI HNM HMP HMF HNG d b a Hb H Hlong HK) as (bu & u & b' & bu' & E1 & _ & _ & Hu).
  rewrite E1. exact Hu.
Qed.
