(* Proofs/Idna_C12c_Round.v - C12, the clauses about the Unicode form (a_of_u, u_idem) on the class of accepted names
   WITHOUT an accepted xn-- input label (PunyIn d = false: no entry of already_punycode is MixedCasePunycode), outside
   Known_C12 and Known_C10_long, relative to the seven adapter premises of C12_statement4.
   ToASCII of the UTF-8 form of ToUnicode d is the ASCII form of d, and ToUnicode of it is ToUnicode d.
   Names with an accepted xn-- input label are covered by Proofs/Idna_C12d_Round.v (c12_round2), which needs the
   premise NvNoGrow and the Punycode fact encode_internal (decode U8Internal p) = map to_lower p
   (enc_dec_internal, Proofs/Idna_C12d_EncDec.v).
   The argument does not depend on which entries the pair lemma covers: round_unicode_gen takes it as a hypothesis.
   Its two halves are used by Proofs/Idna_C12d_UI.v as well: classes_on_pairs (the two classes read on the pairs of the
   accepted run) and displayed_back (the run on the UTF-8 form of a displayed text). *)
From RU Require Import Base.Prelude Base.Utf8 Base.Utf8Facts Base.U32_c13 Gen.Tables Model.Punycode Model.Uts46
  Proofs.C13_Ascii Proofs.Idna_Sim Proofs.Idna_Api Proofs.Idna_Known Proofs.Idna_Hyp Proofs.Idna_Redisc
  Proofs.Idna_C10_Deny Proofs.Idna_C10_Puny Proofs.Idna_C10_Prefix Proofs.Idna_C10_Inner Proofs.Idna_C10_Walk
  Proofs.Idna_C10b_Long Proofs.Idna_C10b_AsciiInner Proofs.Idna_C10b_AsciiWalk Proofs.Idna_C10b_Stmt
  Proofs.Idna_WalkFun Proofs.Idna_WalkInv Proofs.Idna_WalkApi Proofs.Idna_WalkEnc Proofs.Idna_PunyRT
  Proofs.Idna_C10c_Puny Proofs.Idna_C10c_Start Proofs.Idna_C10c_Drun Proofs.Idna_C10c_Loop Proofs.Idna_C10c_Rerun
  Proofs.Idna_C10c_Idem Proofs.Idna_C10c_Example Proofs.Idna_Mark Proofs.Idna_C12 Proofs.Idna_C12b_Stmt3
  Proofs.Idna_C10d_CaseLabel Proofs.Idna_C10d_CaseLoop Proofs.Idna_C10d_Case Proofs.Idna_C12c_Virtual Proofs.Idna_C12c_UofA
  Proofs.Idna_C12c_Stmt4 Proofs.Idna_C12c_ULabel.

(* the class: the accepted run recorded an xn-- input label *)
Definition is_mcp (e : aal) : bool := match e with MixedCasePunycode _ => true | _ => false end.
Definition PunyIn (A : adapter) (cfg : bool) (d : list N) (deny : N) (hy : hyphens) : bool :=
  match process_inner A cfg false hy deny d with
  | IRes _ _ _ _ ap => existsb is_mcp ap
  | IPanic _ => false
  end.

Lemma utf8_encode1_nodot c : c <> DOT -> nodot (utf8_encode1 c).
Proof.
  intros H. unfold utf8_encode1, nodot, DOT in *. destruct (c <? 128) eqn:E1; [repeat constructor; exact H|].
  destruct (c <? 2048); [repeat constructor; lia|]. destruct (c <? 65536); repeat constructor; lia.
Qed.
Lemma utf8_encode_nodot l : nodot l -> nodot (utf8_encode l).
Proof.
  unfold nodot. induction 1 as [|c r Hc _ IH]; [constructor|]. unfold utf8_encode in *. cbn [flat_map].
  apply Forall_app. split; [exact (utf8_encode1_nodot c Hc)|exact IH].
Qed.
Lemma utf8_encode_join ls : utf8_encode (join_dots ls) = join_dots (map utf8_encode ls).
Proof.
  induction ls as [|l r IH]; [reflexivity|]. destruct r as [|x r'].
  - reflexivity.
  - rewrite join_dots_cons2. change (map utf8_encode (l :: x :: r')) with (utf8_encode l :: map utf8_encode (x :: r')).
    destruct (map utf8_encode (x :: r')) as [|y ys] eqn:E; [discriminate|]. rewrite join_dots_cons2, <- IH.
    change (DOT :: join_dots (x :: r')) with ([DOT] ++ join_dots (x :: r')). rewrite !utf8_encode_app. reflexivity.
Qed.
Lemma ascii_usv l : Forall (fun b => b < 128) l -> usv_list l.
Proof. unfold usv_list. intros H. eapply Forall_impl; [|exact H]. unfold is_usv. cbv beta. intros; lia. Qed.

Section Round.
Variable A : adapter.
Variable cfg : bool.
Variable deny : N.
Variable hy : hyphens.
Hypothesis HU : DenyUpper deny.
Hypothesis HL : LdhFree deny.
Hypothesis HOK : AdapterOK A.
Hypothesis HUSV : AdapterUSV A.
Hypothesis HNT : NvNoTrunc A.
Hypothesis HNI : NvIdem A.
Hypothesis HNM : AsciiNoMark A.
Hypothesis HMP : MapPrefix A.
Hypothesis HMF : NvMapFix A.

Notation PairOK := (PairOK A cfg deny hy).
Notation pres := (pres A cfg deny hy).
Notation proc_all := (proc_all A cfg deny hy).

Definition xn_free (dbl : list N) (e : aal) : Prop :=
  match e with MixedCaseAscii _ => True | _ => starts_with dbl XN_PREFIX = false end.

(* one pair: the label step on the UTF-8 form of the Unicode text written for it *)
Lemma pair_rtu dbl e o : PairOK dbl e -> is_mcp e = false -> xn_free dbl e ->
  out_label cfg is_ascii_l dbl e = inl o -> long_puny_label o = false ->
  exists ou e3, out_label cfg uT dbl e = inl ou /\ pres (utf8_encode ou) = SOk (dbl, false, [e3]) /\
    out_label cfg is_ascii_l dbl e3 = inl o /\ out_label cfg uT dbl e3 = inl ou /\ nodot (utf8_encode ou) /\ usv_list ou.
Proof.
  intros HP Hm Hx Ho Hlong.
  pose proof (pair_rt2 A cfg deny hy HU HL dbl e o HP Ho Hlong) as Hrt. pose proof (pres_of_rt A cfg deny hy _ _ _ Hrt) as Hpr.
  pose proof (out_e2 A cfg deny hy HU dbl e o HP Ho) as HoT. pose proof (pair_out_nodot A cfg deny hy HU HL dbl e o HP Ho) as Hndo.
  destruct HP as [m Han Hn Hacc|m dec dbl Ha Hn Hp Hc Hd Hapd Hchk Hna|dbl Hnv Hg Hchk Hu Hpre]; [| discriminate Hm |].
  - (* an all-ASCII input label: the Unicode text is the ASCII text *)
    cbn [out_label] in Ho. inversion Ho. subst o. destruct Han as [Ha _]. pose proof (lower_ascii m Ha) as Hla.
    exists (map to_lower m), (e2_of (cmap deny m) (MixedCaseAscii m) (map to_lower m)).
    rewrite (utf8_encode_ascii _ Hla). split; [reflexivity|]. split; [exact Hpr|]. cbn [e2_of out_label uT]. rewrite lower_lower.
    repeat split; [exact Hndo|exact (ascii_usv _ Hla)].
  - destruct (is_ascii_l dbl) eqn:Easc.
    + (* an ASCII label of the mapped stream *)
      cbn [out_label] in Ho. rewrite Easc in Ho. inversion Ho. subst o. pose proof (is_ascii_l_spec dbl Easc) as Ha.
      exists dbl, (e2_of dbl AalOther dbl). rewrite (utf8_encode_ascii _ Ha). split; [reflexivity|]. split; [exact Hpr|].
      split; [|split; [exact HoT|split; [exact Hndo|exact Hu]]].
      cbn [e2_of]. rewrite Easc. cbn [out_label]. f_equal. apply lower_noupper.
      apply Forall_forall. intros c Hin. rewrite Forall_forall in Ha, Hg.
      exact (proj1 (proj2 (clean_final deny c HU (gc_clean deny DOT_MASK c (Ha c Hin) (Hg c Hin))))).
    + (* a non-ASCII label *)
      exists dbl, AalOther. split; [reflexivity|]. cbn [xn_free] in Hx.
      split; [exact (pres_unicode A cfg deny hy HU HMP HMF dbl Hnv Hg Hchk Hu Easc Hx)|].
      split; [exact Ho|]. split; [reflexivity|]. split; [exact (utf8_encode_nodot dbl (gc_all_nodot deny dbl Hg))|exact Hu].
Qed.

End Round.

Lemma combine_forall2 (Q : list N -> aal -> bool) DBL : forall ap, length DBL = length ap ->
  existsb (fun lp => Q (fst lp) (snd lp)) (combine DBL ap) = false -> Forall2 (fun l e => Q l e = false) DBL ap.
Proof.
  induction DBL as [|l r IH]; intros [|e ap] Hl H; try discriminate; [constructor|].
  cbn [combine existsb fst snd] in H. apply orb_false_iff in H. destruct H as [H1 H2].
  constructor; [exact H1|apply IH; [cbn [length] in Hl; lia|exact H2]].
Qed.

(* from the pairs of an accepted run back to its ASCII form: the part common to to_unicode and to_user_interface *)
Section Back.
Variable A : adapter.
Variable cfg : bool.
Variable deny : N.
Variable hy : hyphens.
Hypothesis HU : DenyUpper deny.
Hypothesis HL : LdhFree deny.
Hypothesis HOK : AdapterOK A.

Notation PairOK := (PairOK A cfg deny hy).
Notation proc_all := (proc_all A cfg deny hy).

(* the classes Known_C12 and Known_C10_long, read on the pairs *)
Lemma classes_on_pairs d pl DBL ap bd os a :
  process_inner A cfg true hy deny d = IRes (len (ptext pl)) bd false (join_dots DBL) ap ->
  Forall PassL pl -> DBL <> [] -> Forall2 PairOK DBL ap -> outs cfg is_ascii_l DBL ap = inl os -> os <> [] ->
  a = join_dots (pl ++ os) -> Known_C12 A cfg d deny hy = false -> Known_C10_long a = false ->
  Forall2 xn_free DBL ap /\ Forall (fun o => long_puny_label o = false) os.
Proof.
  intros Ei Hpl HD HPK Eo Hos Ha HK12 Hlong.
  pose proof (pairok_all_nodot A cfg deny hy _ _ HPK) as HDn.
  destruct (outs_nodot A cfg deny hy HU HL DBL ap os HPK Eo) as [Hosn _].
  destruct (inner_ff_facts A cfg hy deny d _ _ _ _ _ Ei) as [HX|[_ Hm]]; [inversion HX|].
  unfold Known_C12 in HK12. rewrite Hm, (Idna_Mark.split_join DBL HD HDn) in HK12. split.
  - pose proof (combine_forall2 (fun l e => match e with MixedCaseAscii _ => false | _ => starts_with l XN_PREFIX end) DBL ap
                  (Forall2_len _ _ _ HPK) HK12) as HF.
    clear -HF. induction HF as [|l e ls es H1 _ IH]; constructor; [|exact IH]. destruct e; cbn [xn_free]; [exact I|exact H1|exact H1].
  - assert (Hsplit : split_on DOT a = pl ++ os).
    { rewrite Ha. apply Idna_Mark.split_join; [destruct pl; [exact Hos|discriminate]|].
      apply Forall_app. split; [|exact Hosn]. exact (pass_all_nodot _ Hpl). }
    unfold Known_C10_long in Hlong. rewrite Hsplit, existsb_app in Hlong. apply orb_false_iff in Hlong. destruct Hlong as [_ Hl2].
    apply Forall_forall. intros o Hin. destruct (long_puny_label o) eqn:E; [|reflexivity]. exfalso.
    assert (Hx : existsb long_puny_label os = true) by (apply existsb_exists; exists o; split; assumption).
    rewrite Hx in Hl2. discriminate.
Qed.

(* the run on the UTF-8 form of a displayed text pl.ous whose labels ous are taken back to the buffer labels DBL by the
   label step (with the entries e3s, for which ToASCII writes os): the virtual run of Proofs/Idna_C12c_Virtual.v *)
Lemma displayed_back pl DBL bd os ous e3s :
  Forall PassL pl -> DBL <> [] -> Forall nodot DBL ->
  is_bidi A cfg (join_dots DBL) = Ok bd -> (bd = true -> Forall (BOKl A) DBL) -> ous <> [] ->
  proc_all (map utf8_encode ous) = SOk (DBL, map (fun e => [e]) e3s) -> outs cfg is_ascii_l DBL e3s = inl os ->
  Forall nodot (map utf8_encode ous) -> Forall usv_list ous ->
  usv_list (join_dots (pl ++ ous)) /\
  (exists b', to_ascii A cfg (utf8_encode (join_dots (pl ++ ous))) deny hy DIgnore = Ok (b', join_dots (pl ++ os))) /\
  (outs cfg uT DBL e3s = inl ous ->
   exists bu', to_unicode A cfg (utf8_encode (join_dots (pl ++ ous))) deny hy = UI bu' (join_dots (pl ++ ous)) false).
Proof.
  intros Hpl HD HDn Hbidi Hbok Hou U2 U3 U5 U6. pose proof (redisc_of_adapter A cfg deny (ok_nil A HOK) HU) as HR.
  set (u := join_dots (pl ++ ous)).
  assert (Hpa : Forall (Forall (fun b => b < 128)) pl).
  { eapply Forall_impl; [|exact Hpl]. intros l [Hbl Hp]. exact (passthrough_ascii l Hbl Hp). }
  assert (Hw : utf8_encode u = join_dots (pl ++ map utf8_encode ous)).
  { unfold u. rewrite utf8_encode_join, map_app. f_equal. f_equal. clear -Hpa. induction Hpa as [|l r Hl _ IH]; [reflexivity|].
    cbn [map]. rewrite IH, (utf8_encode_ascii l Hl). reflexivity. }
  assert (Huu : usv_list u).
  { unfold u, usv_list. apply join_dots_Forall; [unfold is_usv, DOT; lia|]. apply Forall_app. split; [|exact U6].
    eapply Forall_impl; [|exact Hpa]. intros l Hl. exact (ascii_usv l Hl). }
  pose proof (utf8_encode_bytes u Huu) as Hbw.
  assert (Hne : map utf8_encode ous <> []) by (destruct ous; [contradiction Hou; reflexivity|discriminate]).
  assert (Hsw : split_on DOT (utf8_encode u) = pl ++ map utf8_encode ous).
  { rewrite Hw. apply Idna_Mark.split_join; [destruct pl; [exact Hne|discriminate]|].
    apply Forall_app. split; [exact (pass_all_nodot _ Hpl)|exact U5]. }
  assert (Hp : proc_all (split_on DOT (utf8_encode u)) =
               SOk (pl ++ DBL, map (fun l => [MixedCaseAscii l]) pl ++ map (fun e => [e]) e3s)).
  { rewrite Hsw, proc_all_app, (proc_all_pass A cfg deny hy HL _ Hpl), U2. reflexivity. }
  assert (HV : VBk A cfg (length pl) bd (pl ++ DBL)).
  { split.
    - rewrite concat_app, is_bidi_app, (is_bidi_ascii A cfg _ (pass_all_ascii _ Hpl)), <- is_bidi_join. exact Hbidi.
    - intros Hb1. rewrite (skipn_app_le (length pl) pl DBL (le_n _)), skipn_all. cbn [app]. rewrite (VL_nodot _ HDn). exact (Hbok Hb1). }
  assert (Hk : (length pl <= length (ptake (split_on DOT (utf8_encode u))))%nat).
  { rewrite Hsw, ptake_app_pass, app_length; [lia|]. eapply Forall_impl; [|exact Hpl]. intros l Hl. exact (proj2 Hl). }
  assert (Hcc : concat (map (fun e : aal => [e]) e3s) = e3s).
  { clear. induction e3s as [|e r IH]; [reflexivity|]. cbn [map concat app]. rewrite IH. reflexivity. }
  assert (Hvl : forall uni es, outs cfg uni DBL e3s = inl es ->
            outs cfg uni (VL (pl ++ DBL)) (concat (map (fun l => [MixedCaseAscii l]) pl ++ map (fun e => [e]) e3s)) = inl (pl ++ es)).
  { intros uni es Ees. rewrite VL_app, (VL_nodot _ (pass_all_nodot _ Hpl)), (VL_nodot _ HDn), concat_app, concat_mca, Hcc.
    rewrite (outs_mca cfg uni _ _ pl pl eq_refl), Ees, (pass_all_lower deny HU HL _ Hpl). reflexivity. }
  split; [exact Huu|]. split.
  - exact (virtual_ascii A cfg deny hy HU HL HR _ _ _ _ bd _ Hbw Hp HV Hk (Hvl _ _ U3)).
  - intros U4. destruct (virtual_unicode A cfg deny hy HU HL HR _ _ _ _ bd Hbw Hp HV Hk) as (bu' & ov & Eov & HTw).
    rewrite (Hvl _ _ U4) in Eov. inversion Eov. subst ov. exists bu'. exact HTw.
Qed.
End Back.

(* to_unicode: the two clauses, for the entries covered by a given pair lemma *)
Section RoundGen.
Variable A : adapter.
Variable cfg : bool.
Variable deny : N.
Variable hy : hyphens.
Hypothesis HU : DenyUpper deny.
Hypothesis HL : LdhFree deny.
Hypothesis HOK : AdapterOK A.
Hypothesis HUSV : AdapterUSV A.
Hypothesis HNT : NvNoTrunc A.
Hypothesis HNI : NvIdem A.
Hypothesis HNM : AsciiNoMark A.
Hypothesis HMP : MapPrefix A.

Notation PairOK := (PairOK A cfg deny hy).
Notation pres := (pres A cfg deny hy).
Notation proc_all := (proc_all A cfg deny hy).

(* Q marks the entries the pair lemma does not cover *)
Variable Q : aal -> bool.
Hypothesis pair_back : forall dbl e o, PairOK dbl e -> Q e = false -> xn_free dbl e ->
  out_label cfg is_ascii_l dbl e = inl o -> long_puny_label o = false ->
  exists ou e3, out_label cfg uT dbl e = inl ou /\ pres (utf8_encode ou) = SOk (dbl, false, [e3]) /\
    out_label cfg is_ascii_l dbl e3 = inl o /\ out_label cfg uT dbl e3 = inl ou /\ nodot (utf8_encode ou) /\ usv_list ou.

Lemma build_U DBL : forall ap os, Forall2 PairOK DBL ap -> existsb Q ap = false -> Forall2 xn_free DBL ap ->
  outs cfg is_ascii_l DBL ap = inl os -> Forall (fun o => long_puny_label o = false) os ->
  exists ous e3s, outs cfg uT DBL ap = inl ous /\ proc_all (map utf8_encode ous) = SOk (DBL, map (fun e => [e]) e3s) /\
    outs cfg is_ascii_l DBL e3s = inl os /\ outs cfg uT DBL e3s = inl ous /\
    Forall nodot (map utf8_encode ous) /\ Forall usv_list ous.
Proof.
  induction DBL as [|dbl DBL IH]; intros ap os HP Hm Hx Ho Hl.
  - inversion HP; subst. cbn [outs] in Ho. inversion Ho. exists [], []. repeat split; constructor.
  - inversion HP as [|? e ? ap' H1 H2]; subst. inversion Hx as [|? ? ? ? X1 X2]; subst. cbn [outs existsb] in Ho, Hm.
    apply orb_false_iff in Hm. destruct Hm as [M1 M2].
    destruct (out_label cfg is_ascii_l dbl e) as [o|s] eqn:E1; [|discriminate].
    destruct (outs cfg is_ascii_l DBL ap') as [os'|s] eqn:E2; [|discriminate]. inversion Ho. subst os.
    inversion Hl as [|? ? Hl1 Hl2]; subst.
    destruct (IH _ _ H2 M2 X2 E2 Hl2) as (ous & e3s & U1 & U2 & U3 & U4 & U5 & U6).
    destruct (pair_back dbl e o H1 M1 X1 E1 Hl1) as (ou & e3 & P1 & P2 & P3 & P4 & P5 & P6).
    exists (ou :: ous), (e3 :: e3s). cbn [outs map proc_all]. rewrite P1, U1, P2, U2, P3, U3, P4, U4.
    repeat split; constructor; assumption.
Qed.

Theorem round_unicode_gen d b a : bytes d -> to_ascii A cfg d deny hy DIgnore = Ok (b, a) -> Known_C10_long a = false ->
  Known_C12 A cfg d deny hy = false ->
  (forall ptu bd he db ap, process_inner A cfg false hy deny d = IRes ptu bd he db ap -> existsb Q ap = false) ->
  exists bu u b' bu', to_unicode A cfg d deny hy = UI bu u false /\
    to_ascii A cfg (utf8_encode u) deny hy DIgnore = Ok (b', a) /\
    to_unicode A cfg (utf8_encode u) deny hy = UI bu' u false /\ usv_list u.
Proof.
  intros Hb H Hlong HK12 HQ.
  destruct (first_run A cfg deny hy HU HL HOK HUSV HNT HNI HNM HMP d b a Hb H)
    as [(-> & Had & HTd)|(pl & DBL & ap & bd & os & ou & bu & Ei & Hpl & HD & HPK & Hbidi & Hbok & Eo & Hos & Ha & Eu & Hou & HTu)].
  - (* the whole name was passed through *)
    exists true, d, b, true. rewrite (utf8_encode_ascii d Had). split; [exact HTd|]. split; [exact H|]. split; [exact HTd|exact (ascii_usv d Had)].
  - destruct (classes_on_pairs A cfg deny hy HU HL d pl DBL ap bd os a Ei Hpl HD HPK Eo Hos Ha HK12 Hlong) as [Hxf Hlo].
    destruct (inner_ff_facts A cfg hy deny d _ _ _ _ _ Ei) as [HX|[_ Hm]]; [inversion HX|].
    destruct (build_U DBL ap os HPK (HQ _ _ _ _ _ Hm) Hxf Eo Hlo) as (ous & e3s & U1 & U2 & U3 & U4 & U5 & U6).
    rewrite Eu in U1. inversion U1. subst ous. clear U1.
    destruct (displayed_back A cfg deny hy HU HL HOK pl DBL bd os ou e3s Hpl HD (pairok_all_nodot A cfg deny hy _ _ HPK)
                Hbidi Hbok Hou U2 U3 U5 U6) as (Huu & (b' & HTa) & HTw).
    destruct (HTw U4) as (bu' & HTw'). rewrite <- Ha in HTa.
    exists bu, (join_dots (pl ++ ou)), b', bu'. split; [exact HTu|]. split; [exact HTa|]. split; [exact HTw'|exact Huu].
Qed.
End RoundGen.

Section Round1.
Variable A : adapter.
Variable cfg : bool.
Variable deny : N.
Variable hy : hyphens.
Hypothesis HU : DenyUpper deny.
Hypothesis HL : LdhFree deny.
Hypothesis HOK : AdapterOK A.
Hypothesis HUSV : AdapterUSV A.
Hypothesis HNT : NvNoTrunc A.
Hypothesis HNI : NvIdem A.
Hypothesis HNM : AsciiNoMark A.
Hypothesis HMP : MapPrefix A.
Hypothesis HMF : NvMapFix A.

(* the two clauses, no accepted xn-- input label *)
Theorem round_unicode d b a : bytes d -> to_ascii A cfg d deny hy DIgnore = Ok (b, a) -> Known_C10_long a = false ->
  Known_C12 A cfg d deny hy = false -> PunyIn A cfg d deny hy = false ->
  exists bu u b' bu', to_unicode A cfg d deny hy = UI bu u false /\
    to_ascii A cfg (utf8_encode u) deny hy DIgnore = Ok (b', a) /\
    to_unicode A cfg (utf8_encode u) deny hy = UI bu' u false.
Proof.
  intros Hb H Hlong HK12 HPI.
  destruct (round_unicode_gen A cfg deny hy HU HL HOK HUSV HNT HNI HNM HMP is_mcp (pair_rtu A cfg deny hy HU HL HMP HMF)
              d b a Hb H Hlong HK12) as (bu & u & b' & bu' & E1 & E2 & E3 & _).
  - intros ptu bd he db ap Hm. unfold PunyIn in HPI. rewrite Hm in HPI. exact HPI.
  - exists bu, u, b', bu'. repeat split; assumption.
Qed.
End Round1.

(* the statement: three of the four clauses on the class *)
Theorem c12_round A cfg : AdapterOK A -> AdapterUSV A -> NvNoTrunc A -> NvIdem A -> AsciiNoMark A -> MapPrefix A -> NvMapFix A ->
  forall d deny hy b a, bytes d -> valid_deny deny -> Known_C12 A cfg d deny hy = false -> PunyIn A cfg d deny hy = false ->
  to_ascii A cfg d deny hy DIgnore = Ok (b, a) -> Known_C10_long a = false ->
  let u := ui_text (to_unicode A cfg d deny hy) in
  (ui_text (to_unicode A cfg a deny hy) = u /\ ui_err (to_unicode A cfg a deny hy) = false) /\
  (exists b', to_ascii A cfg (utf8_encode u) deny hy DIgnore = Ok (b', a)) /\
  (ui_text (to_unicode A cfg (utf8_encode u) deny hy) = u /\ ui_err (to_unicode A cfg (utf8_encode u) deny hy) = false).
Proof.
  intros HOK HUSV HNT HNI HNM HMP HMF d deny hy b a Hb Hv HK HP H Hlong. destruct (valid_deny_facts deny Hv) as [HU HL].
  destruct (c12_u_of_a A cfg HOK HUSV HNT HNI HNM HMP d deny hy b a Hb Hv H Hlong) as (C1 & C2 & _).
  destruct (round_unicode A cfg deny hy HU HL HOK HUSV HNT HNI HNM HMP HMF d b a Hb H Hlong HK HP) as (bu & u & b' & bu' & E1 & E2 & E3).
  cbv zeta. rewrite E1. cbn [ui_text]. split; [split; [rewrite C1, E1; reflexivity|exact C2]|].
  split; [exists b'; exact E2|]. rewrite E3. split; reflexivity.
Qed.

(* the class is not empty: "A.B<u-umlaut>cher" under lowsan4 *)
Example c12_round_example :
  Known_C12 lowsan4 true W_idem3 DENY_URL HCheck = false /\ PunyIn lowsan4 true W_idem3 DENY_URL HCheck = false /\
  to_ascii lowsan4 true W_idem3 DENY_URL HCheck DIgnore = Ok (false, W_idem3_A) /\ Known_C10_long W_idem3_A = false /\
  to_unicode lowsan4 true W_idem3 DENY_URL HCheck = UI false [97; 46; 98; 252; 99; 104; 101; 114] false.
Proof. vm_compute. repeat split; reflexivity. Qed.
