(* Proofs/C01_EqRun.v - the specification side of the C01 equivalence: a big-step reading of the
   state machine of Spec/Whatwg.v (`Runs m r`: the loop started on machine m ends with outcome r),
   its agreement with the fuelled `run`, and what the machine computes from the fragment, query,
   opaque-path, scheme-start and scheme states on ANY remaining text. *)
From RU Require Import Base.Prelude Spec.Whatwg Spec.WhatwgFuel.


Section Runs.
Variable hp : bool -> list N -> option spec_host.
Variable input : list N.
Variable base : option spec_url.

Notation stepN := (step hp input base None).
Notation runN := (run hp input base None).
Notation LEN := (Z.of_nat (length input)).

(* the loop of `run`, without fuel *)
Inductive Runs : machine -> parse_outcome -> Prop :=
| R_fail m u : stepN m = SFailure u -> Runs m (BFailure u)
| R_ret m u : stepN m = SReturn u -> Runs m (BDone u)
| R_end m m' : stepN m = SCont m' -> (LEN <= m_ptr m')%Z -> Runs m (BDone (m_url m'))
| R_next m m' r : stepN m = SCont m' -> (m_ptr m' < LEN)%Z -> Runs (inc_ptr m') r -> Runs m r.

Lemma runs_run m r : Runs m r -> forall fuel, runN fuel m <> BOutOfFuel -> runN fuel m = r.
Proof.
  induction 1 as [m u E|m u E|m m' E Hp|m m' r E Hp HR IH]; intros fuel Hf;
    (destruct fuel as [|f]; [exfalso; apply Hf; reflexivity|]); cbn [run] in *; rewrite E in *.
  - reflexivity.
  - reflexivity.
  - replace (LEN <=? m_ptr m')%Z with true by lia. reflexivity.
  - replace (LEN <=? m_ptr m')%Z with false in * by lia. apply IH. exact Hf.
Qed.

(* where the pointer is *)
Lemma substring_at pre t : input = pre ++ t -> substring_from input (Z.of_nat (length pre)) = t.
Proof.
  intros ->. unfold substring_from. replace (Z.of_nat (length pre) <? 0)%Z with false by lia.
  rewrite Nat2Z.id. rewrite skipn_app, skipn_all, Nat.sub_diag. reflexivity.
Qed.

Lemma len_split pre t : input = pre ++ t -> LEN = (Z.of_nat (length pre) + Z.of_nat (length t))%Z.
Proof. intros ->. rewrite app_length. lia. Qed.

Lemma snoc_split pre c r : input = pre ++ c :: r -> input = (pre ++ [c]) ++ r.
Proof. intros ->. rewrite <- app_assoc. reflexivity. Qed.

Lemma len_snoc pre (c : N) : Z.of_nat (length (pre ++ [c])) = (Z.of_nat (length pre) + 1)%Z.
Proof. rewrite app_length. cbn [length]. lia. Qed.

Definition at_pos (st : pstate) (pre : list N) (buf : list N) (a b pw : bool) (u : spec_url) : machine :=
  mkM st (Z.of_nat (length pre)) buf a b pw u.

(* one run of a machine that looks at c and continues with m' (pointer unchanged by the state) *)
Lemma runs_step_next st pre c r buf a b pw u st' buf' a' b' pw' u' res :
  input = pre ++ c :: r ->
  stepN (at_pos st pre buf a b pw u) = SCont (mkM st' (Z.of_nat (length pre)) buf' a' b' pw' u') ->
  Runs (at_pos st' (pre ++ [c]) buf' a' b' pw' u') res ->
  Runs (at_pos st pre buf a b pw u) res.
Proof.
  intros Hin E HR. eapply R_next; [exact E | |].
  - cbn [m_ptr]. rewrite (len_split _ _ Hin). cbn [length]. lia.
  - unfold inc_ptr, set_ptr. cbn [m_ptr m_state m_buf m_at m_br m_pw m_url].
    unfold at_pos in HR. rewrite len_snoc in HR. exact HR.
Qed.

(* a run that decreases the pointer (and is followed by the loop's increment): same position *)
Lemma runs_step_stay st pre t buf a b pw u st' buf' a' b' pw' u' res :
  input = pre ++ t -> t <> [] ->
  stepN (at_pos st pre buf a b pw u) = SCont (mkM st' (Z.of_nat (length pre) - 1)%Z buf' a' b' pw' u') ->
  Runs (at_pos st' pre buf' a' b' pw' u') res ->
  Runs (at_pos st pre buf a b pw u) res.
Proof.
  intros Hin Hne E HR. eapply R_next; [exact E | |].
  - cbn [m_ptr]. rewrite (len_split _ _ Hin). lia.
  - unfold inc_ptr, set_ptr. cbn [m_ptr m_state m_buf m_at m_br m_pw m_url].
    unfold at_pos in HR. replace (Z.of_nat (length pre) - 1 + 1)%Z with (Z.of_nat (length pre)) by lia. exact HR.
Qed.

Lemma step_unfold st pre t buf a b pw u : input = pre ++ t ->
  stepN (at_pos st pre buf a b pw u)
  = let m := at_pos st pre buf a b pw u in
    let c := hd_error t in let rem := tl t in
    match st with
    | StSchemeStart => st_scheme_start None m c
    | StScheme => st_scheme base None m c rem
    | StNoScheme => st_no_scheme base m c
    | StSpecialRelativeOrAuthority => st_special_relative_or_authority m c rem
    | StPathOrAuthority => st_path_or_authority m c
    | StRelative => st_relative base m c
    | StRelativeSlash => st_relative_slash base m c
    | StSpecialAuthoritySlashes => st_special_authority_slashes m c rem
    | StSpecialAuthorityIgnoreSlashes => st_special_authority_ignore_slashes m c
    | StAuthority => st_authority m c
    | StHost | StHostname => st_host hp None m c
    | StPort => st_port None m c
    | StFile => st_file base m c rem
    | StFileSlash => st_file_slash base m c rem
    | StFileHost => st_file_host hp None m c
    | StPathStart => st_path_start None m c
    | StPath => st_path None m c
    | StOpaquePath => st_opaque_path m c
    | StQuery => st_query None m c
    | StFragment => st_fragment m c
    end.
Proof.
  intros Hin. unfold step, at_pos. cbn [m_ptr m_state]. rewrite (substring_at _ _ Hin). reflexivity.
Qed.

(* fragment state *)
Definition upe := utf8_percent_encode.

Lemma upe_cons inset c r : upe inset (c :: r) = utf8_percent_encode_cp inset c ++ upe inset r.
Proof. reflexivity. Qed.
Lemma upe_app inset x y : upe inset (x ++ y) = upe inset x ++ upe inset y.
Proof. unfold upe, utf8_percent_encode. apply flat_map_app. Qed.

Lemma set_fragment_same u f : su_fragment u = Some f -> set_fragment u (Some f) = u.
Proof. destruct u. cbn. intros ->. reflexivity. Qed.

Theorem runs_fragment : forall t pre buf a b pw u f0,
  input = pre ++ t -> su_fragment u = Some f0 ->
  Runs (at_pos StFragment pre buf a b pw u)
       (BDone (set_fragment u (Some (f0 ++ upe in_fragment_set t)))).
Proof.
  induction t as [|c r IH]; intros pre buf a b pw u f0 Hin Hf.
  - cbn [upe utf8_percent_encode flat_map]. rewrite app_nil_r, (set_fragment_same _ _ Hf).
    eapply R_end with (m' := at_pos StFragment pre buf a b pw u).
    + rewrite (step_unfold _ _ _ _ _ _ _ _ Hin). reflexivity.
    + cbn [m_ptr at_pos]. rewrite (len_split _ _ Hin). cbn [length]. lia.
  - eapply runs_step_next; [exact Hin | |].
    + rewrite (step_unfold _ _ _ _ _ _ _ _ Hin). cbn zeta. cbn [hd_error]. unfold st_fragment.
      cbn [m_url at_pos]. rewrite Hf. unfold set_url. cbn [m_state m_ptr m_buf m_at m_br m_pw]. reflexivity.
    + rewrite upe_cons, app_assoc.
      pose proof (IH (pre ++ [c]) buf a b pw
                     (set_fragment u (Some (f0 ++ utf8_percent_encode_cp in_fragment_set c)))
                     (f0 ++ utf8_percent_encode_cp in_fragment_set c) (snoc_split _ _ _ Hin) eq_refl) as H.
      exact H.
Qed.

(* query state *)
Fixpoint before_hash (l : list N) : list N :=
  match l with [] => [] | c :: r => if c =? 35 then [] else c :: before_hash r end.
Fixpoint after_hash (l : list N) : option (list N) :=
  match l with [] => None | c :: r => if c =? 35 then Some r else after_hash r end.

Definition qset_of (u : spec_url) : N -> bool :=
  if is_special u then in_special_query_set else in_query_set.

Definition frag_opt (u : spec_url) (f : option (list N)) : spec_url :=
  match f with
  | Some tf => set_fragment u (Some (upe in_fragment_set tf))
  | None => u
  end.

(* what the query state leaves: query = q0 ++ encoded (buffer ++ text before '#'), then the fragment *)
Definition query_final (u : spec_url) (q0 buf t : list N) : spec_url :=
  frag_opt (set_query u (Some (q0 ++ upe (qset_of u) (buf ++ before_hash t)))) (after_hash t).

Theorem runs_query : forall t pre buf a b pw u q0,
  input = pre ++ t -> su_query u = Some q0 ->
  Runs (at_pos StQuery pre buf a b pw u) (BDone (query_final u q0 buf t)).
Proof.
  induction t as [|c r IH]; intros pre buf a b pw u q0 Hin Hq.
  - unfold query_final. cbn [before_hash after_hash frag_opt].
    eapply R_end with (m' := at_pos StQuery pre [] a b pw (set_query u (Some (q0 ++ upe (qset_of u) (buf ++ []))))).
    + rewrite (step_unfold _ _ _ _ _ _ _ _ Hin). cbn zeta. cbn [hd_error]. unfold st_query.
      cbn [has_ov opt_is_some negb andb orb is_eof cis m_url m_buf at_pos]. rewrite Hq, app_nil_r.
      reflexivity.
    + cbn [m_ptr at_pos]. rewrite (len_split _ _ Hin). cbn [length]. lia.
  - destruct (c =? 35) eqn:E35.
    + unfold query_final. cbn [before_hash after_hash]. rewrite E35. cbn [frag_opt]. rewrite app_nil_r.
      set (u1 := set_query u (Some (q0 ++ upe (qset_of u) buf))).
      eapply runs_step_next with (st' := StFragment) (buf' := []) (u' := set_fragment u1 (Some []));
        [exact Hin | |].
      * rewrite (step_unfold _ _ _ _ _ _ _ _ Hin). cbn zeta. cbn [hd_error]. unfold st_query.
        cbn [has_ov opt_is_some negb andb orb is_eof cis m_url m_buf at_pos]. rewrite E35, Hq.
        cbn [orb]. reflexivity.
      * pose proof (runs_fragment r (pre ++ [c]) [] a b pw (set_fragment u1 (Some [])) []
                      (snoc_split _ _ _ Hin) eq_refl) as H.
        cbn [app] in H. exact H.
    + eapply runs_step_next with (st' := StQuery) (buf' := buf ++ [c]) (u' := u); [exact Hin | |].
      * rewrite (step_unfold _ _ _ _ _ _ _ _ Hin). cbn zeta. cbn [hd_error]. unfold st_query.
        cbn [has_ov opt_is_some negb andb orb is_eof cis m_url m_buf at_pos]. rewrite E35.
        cbn [orb]. reflexivity.
      * pose proof (IH (pre ++ [c]) (buf ++ [c]) a b pw u q0 (snoc_split _ _ _ Hin) Hq) as H.
        unfold query_final in *. cbn [before_hash after_hash]. rewrite E35.
        rewrite <- app_assoc in H. exact H.
Qed.

(* what follows a path: nothing, '?query', '#fragment' *)
Definition is_qh (c : N) : bool := (c =? 63) || (c =? 35).

Definition tail_url (u : spec_url) (rest : list N) : spec_url :=
  match rest with
  | [] => u
  | c :: r => if c =? 63 then query_final (set_query u (Some [])) [] [] r
              else set_fragment u (Some (upe in_fragment_set r))
  end.

(* opaque path state *)
Fixpoint o_path (t : list N) : list N :=
  match t with [] => [] | c :: r => if is_qh c then [] else c :: o_path r end.
Fixpoint o_rest (t : list N) : list N :=
  match t with [] => [] | c :: r => if is_qh c then t else o_rest r end.

Lemma o_rest_head t : match o_rest t with [] => True | c :: _ => is_qh c = true end.
Proof. induction t as [|c r IH]; [exact I|]. cbn [o_rest]. destruct (is_qh c) eqn:E; [exact E | exact IH]. Qed.

Theorem runs_opaque_path : forall t pre a b pw u p,
  input = pre ++ t -> su_path u = SPOpaque p ->
  Runs (at_pos StOpaquePath pre [] a b pw u)
       (BDone (tail_url (set_path u (SPOpaque (p ++ upe in_c0_control_set (o_path t)))) (o_rest t))).
Proof.
  induction t as [|c r IH]; intros pre a b pw u p Hin Hp.
  - cbn [o_path o_rest upe utf8_percent_encode flat_map tail_url]. rewrite app_nil_r.
    assert (set_path u (SPOpaque p) = u) as -> by (destruct u; cbn in *; rewrite Hp; reflexivity).
    eapply R_end with (m' := at_pos StOpaquePath pre [] a b pw u).
    + rewrite (step_unfold _ _ _ _ _ _ _ _ Hin). reflexivity.
    + cbn [m_ptr at_pos]. rewrite (len_split _ _ Hin). cbn [length]. lia.
  - cbn [o_path o_rest]. unfold is_qh at 1 2. destruct (c =? 63) eqn:E63.
    + cbn [orb upe utf8_percent_encode flat_map tail_url]. rewrite E63, app_nil_r.
      assert (set_path u (SPOpaque p) = u) as -> by (destruct u; cbn in *; rewrite Hp; reflexivity).
      eapply runs_step_next with (st' := StQuery) (buf' := []) (u' := set_query u (Some [])); [exact Hin | |].
      * rewrite (step_unfold _ _ _ _ _ _ _ _ Hin). cbn zeta. cbn [hd_error]. unfold st_opaque_path.
        cbn [cis m_url at_pos]. rewrite E63. reflexivity.
      * exact (runs_query r (pre ++ [c]) [] a b pw (set_query u (Some [])) [] (snoc_split _ _ _ Hin) eq_refl).
    + destruct (c =? 35) eqn:E35.
      * cbn [orb upe utf8_percent_encode flat_map tail_url]. rewrite E63, app_nil_r.
        assert (set_path u (SPOpaque p) = u) as -> by (destruct u; cbn in *; rewrite Hp; reflexivity).
        eapply runs_step_next with (st' := StFragment) (buf' := []) (u' := set_fragment u (Some [])); [exact Hin | |].
        -- rewrite (step_unfold _ _ _ _ _ _ _ _ Hin). cbn zeta. cbn [hd_error]. unfold st_opaque_path.
           cbn [cis m_url at_pos]. rewrite E63, E35. reflexivity.
        -- exact (runs_fragment r (pre ++ [c]) [] a b pw (set_fragment u (Some [])) [] (snoc_split _ _ _ Hin) eq_refl).
      * cbn [orb].
        eapply runs_step_next with (st' := StOpaquePath) (buf' := [])
          (u' := set_path u (SPOpaque (p ++ utf8_percent_encode_cp in_c0_control_set c))); [exact Hin | |].
        -- rewrite (step_unfold _ _ _ _ _ _ _ _ Hin). cbn zeta. cbn [hd_error]. unfold st_opaque_path.
           cbn [cis m_url at_pos]. rewrite E63, E35, Hp. reflexivity.
        -- pose proof (IH (pre ++ [c]) a b pw
                         (set_path u (SPOpaque (p ++ utf8_percent_encode_cp in_c0_control_set c)))
                         (p ++ utf8_percent_encode_cp in_c0_control_set c) (snoc_split _ _ _ Hin) eq_refl) as H.
           rewrite upe_cons, app_assoc. exact H.
Qed.

(* scheme start state, scheme state *)
(* the Standard's scheme scan on the (tab/newline-free) text: buffer, then the text after ':' *)
Fixpoint scheme_scan (buf : list N) (t : list N) : option (list N * list N) :=
  match t with
  | [] => None
  | c :: r => if is_scheme_cp c then scheme_scan (buf ++ [to_lower c]) r
              else if c =? 58 then Some (buf, r) else None
  end.
Definition spec_scheme (t : list N) : option (list N * list N) :=
  match t with
  | c :: _ => if is_alpha c then scheme_scan [] t else None
  | [] => None
  end.

Lemma is_alpha_scheme_cp c : is_alpha c = true -> is_scheme_cp c = true.
Proof. unfold is_scheme_cp, is_alnum. intros ->. reflexivity. Qed.

Lemma runs_step_restart st pre buf a b pw u st' buf' a' b' pw' u' res :
  stepN (at_pos st pre buf a b pw u) = SCont (mkM st' (-1)%Z buf' a' b' pw' u') ->
  Runs (at_pos st' [] buf' a' b' pw' u') res ->
  Runs (at_pos st pre buf a b pw u) res.
Proof.
  intros E HR. eapply R_next; [exact E | cbn [m_ptr]; lia | exact HR].
Qed.

(* the scheme state fails: start over in the no scheme state, at the first code point *)
Lemma runs_scheme_none : forall t pre buf a b pw u res,
  input = pre ++ t -> scheme_scan buf t = None ->
  Runs (at_pos StNoScheme [] [] a b pw u) res ->
  Runs (at_pos StScheme pre buf a b pw u) res.
Proof.
  induction t as [|c r IH]; intros pre buf a b pw u res Hin Hs HR.
  - eapply runs_step_restart; [|exact HR].
    rewrite (step_unfold _ _ _ _ _ _ _ _ Hin). reflexivity.
  - cbn [scheme_scan] in Hs. destruct (is_scheme_cp c) eqn:Ec.
    + eapply runs_step_next with (st' := StScheme) (buf' := buf ++ [to_lower c]) (u' := u); [exact Hin | |].
      * rewrite (step_unfold _ _ _ _ _ _ _ _ Hin). cbn zeta. cbn [hd_error]. unfold st_scheme.
        cbn [cpred]. rewrite Ec. reflexivity.
      * exact (IH (pre ++ [c]) _ a b pw u res (snoc_split _ _ _ Hin) Hs HR).
    + destruct (c =? 58) eqn:E58; [discriminate|].
      eapply runs_step_restart; [|exact HR].
      rewrite (step_unfold _ _ _ _ _ _ _ _ Hin). cbn zeta. cbn [hd_error]. unfold st_scheme.
      cbn [cpred cis]. rewrite Ec, E58. reflexivity.
Qed.

(* the scheme state succeeds: the machine arrives at the ':' with the scheme in the buffer *)
Lemma runs_scheme_some : forall t pre buf a b pw u sch rest res,
  input = pre ++ t -> scheme_scan buf t = Some (sch, rest) ->
  exists pre', input = pre' ++ 58 :: rest
    /\ (Runs (at_pos StScheme pre' sch a b pw u) res -> Runs (at_pos StScheme pre buf a b pw u) res).
Proof.
  induction t as [|c r IH]; intros pre buf a b pw u sch rest res Hin Hs; [discriminate|].
  cbn [scheme_scan] in Hs. destruct (is_scheme_cp c) eqn:Ec.
  - destruct (IH (pre ++ [c]) _ a b pw u sch rest res (snoc_split _ _ _ Hin) Hs) as (pre' & Hin' & K).
    exists pre'. split; [exact Hin'|]. intros HR.
    eapply runs_step_next with (st' := StScheme) (buf' := buf ++ [to_lower c]) (u' := u); [exact Hin | |].
    + rewrite (step_unfold _ _ _ _ _ _ _ _ Hin). cbn zeta. cbn [hd_error]. unfold st_scheme.
      cbn [cpred]. rewrite Ec. reflexivity.
    + exact (K HR).
  - destruct (c =? 58) eqn:E58; [|discriminate]. inversion Hs; subst buf rest.
    apply N.eqb_eq in E58. subst c. exists pre. split; [exact Hin | tauto].
Qed.

Definition m0 : machine := mkM StSchemeStart 0%Z [] false false false empty_url.

Lemma m0_at : m0 = at_pos StSchemeStart [] [] false false false empty_url.
Proof. reflexivity. Qed.

(* no scheme: the no scheme state runs on the whole input *)
Theorem runs_no_scheme res : spec_scheme input = None ->
  Runs (at_pos StNoScheme [] [] false false false empty_url) res -> Runs m0 res.
Proof.
  intros Hs HR. rewrite m0_at. unfold spec_scheme in Hs.
  destruct input as [|c r] eqn:Ein.
  - eapply (runs_step_restart StSchemeStart [] [] false false false empty_url StNoScheme [] false false false empty_url);
      [|exact HR].
    rewrite (step_unfold _ [] [] _ _ _ _ _ Ein). reflexivity.
  - destruct (is_alpha c) eqn:Ea.
    + cbn [scheme_scan] in Hs. rewrite (is_alpha_scheme_cp c Ea) in Hs.
      eapply (runs_step_next StSchemeStart [] c r) with (st' := StScheme) (buf' := [] ++ [to_lower c]) (u' := empty_url);
        [exact Ein | |].
      * rewrite (step_unfold _ [] (c :: r) _ _ _ _ _ Ein). cbn zeta. cbn [hd_error]. unfold st_scheme_start.
        cbn [cpred]. rewrite Ea. reflexivity.
      * eapply (runs_scheme_none r ([] ++ [c])); [exact Ein | exact Hs | exact HR].
    + eapply (runs_step_stay StSchemeStart [] (c :: r)) with (st' := StNoScheme) (buf' := []) (u' := empty_url);
        [exact Ein | discriminate | | exact HR].
      rewrite (step_unfold _ [] (c :: r) _ _ _ _ _ Ein). cbn zeta. cbn [hd_error]. unfold st_scheme_start.
      cbn [cpred]. rewrite Ea. reflexivity.
Qed.

(* a scheme: the machine arrives at the ':' in the scheme state with the scheme in the buffer *)
Theorem runs_scheme sch rest res : spec_scheme input = Some (sch, rest) ->
  exists pre', input = pre' ++ 58 :: rest
    /\ (Runs (at_pos StScheme pre' sch false false false empty_url) res -> Runs m0 res).
Proof.
  intros Hs. rewrite m0_at. unfold spec_scheme in Hs.
  destruct input as [|c r] eqn:Ein; [discriminate|].
  destruct (is_alpha c) eqn:Ea; [|discriminate].
  cbn [scheme_scan] in Hs. rewrite (is_alpha_scheme_cp c Ea) in Hs.
  rewrite <- Ein in *.
  destruct (runs_scheme_some r ([] ++ [c]) ([] ++ [to_lower c]) false false false empty_url sch rest res)
    as (pre' & Hin' & K); [exact Ein | exact Hs |].
  exists pre'. split; [exact Hin'|]. intros HR.
  eapply (runs_step_next StSchemeStart [] c r) with (st' := StScheme) (buf' := [] ++ [to_lower c]) (u' := empty_url);
    [exact Ein | | exact (K HR)].
  rewrite (step_unfold _ [] (c :: r) _ _ _ _ _ Ein). cbn zeta. cbn [hd_error]. unfold st_scheme_start.
  cbn [cpred]. rewrite Ea. reflexivity.
Qed.

(* the run at the ':' for a non-special scheme without base-independent dispatch: opaque path *)
Theorem runs_scheme_colon_opaque pre sch rest res :
  input = pre ++ 58 :: rest -> is_special_scheme sch = false -> starts_with_cp 47 rest = false ->
  Runs (at_pos StOpaquePath (pre ++ [58]) [] false false false
               (set_path (set_scheme empty_url sch) (SPOpaque []))) res ->
  Runs (at_pos StScheme pre sch false false false empty_url) res.
Proof.
  intros Hin Hns H47 HR.
  eapply runs_step_next with (st' := StOpaquePath) (buf' := []); [exact Hin | | exact HR].
  rewrite (step_unfold _ _ _ _ _ _ _ _ Hin). cbn zeta. cbn [hd_error tl]. unfold st_scheme.
  assert (is_scheme_cp 58 = false) as E1 by reflexivity.
  cbn [cpred cis has_ov opt_is_some andb m_url m_buf at_pos]. rewrite E1.
  replace (58 =? 58) with true by reflexivity.
  unfold is_special. cbn [su_scheme set_scheme empty_url].
  assert (list_eqb sch str_file = false) as Ef.
  { destruct (list_eqb sch str_file) eqn:E; [|reflexivity]. apply list_eqb_spec in E. subst sch. discriminate. }
  rewrite Ef, Hns, H47. cbn [andb]. reflexivity.
Qed.

(* the run at the ':' for a non-special scheme followed by '/': path or authority state, after the '/' *)
Theorem runs_scheme_colon_slash pre sch rest res :
  input = pre ++ 58 :: 47 :: rest -> is_special_scheme sch = false ->
  Runs (at_pos StPathOrAuthority (pre ++ [58; 47]) [] false false false (set_scheme empty_url sch)) res ->
  Runs (at_pos StScheme pre sch false false false empty_url) res.
Proof.
  intros Hin Hns HR.
  eapply R_next with (m' := mkM StPathOrAuthority (Z.of_nat (length pre) + 1)%Z [] false false false (set_scheme empty_url sch)).
  - rewrite (step_unfold _ _ _ _ _ _ _ _ Hin). cbn zeta. cbn [hd_error tl]. unfold st_scheme.
    assert (is_scheme_cp 58 = false) as E1 by reflexivity.
    cbn [cpred cis has_ov opt_is_some andb m_url m_buf at_pos]. rewrite E1.
    replace (58 =? 58) with true by reflexivity.
    unfold is_special. cbn [su_scheme set_scheme empty_url].
    assert (list_eqb sch str_file = false) as Ef.
    { destruct (list_eqb sch str_file) eqn:E; [|reflexivity]. apply list_eqb_spec in E. subst sch. discriminate. }
    rewrite Ef, Hns. cbn [andb starts_with_cp]. replace (47 =? 47) with true by reflexivity. reflexivity.
  - cbn [m_ptr]. rewrite (len_split _ _ Hin). cbn [length]. lia.
  - unfold inc_ptr, set_ptr. cbn [m_ptr m_state m_buf m_at m_br m_pw m_url].
    unfold at_pos in HR. rewrite app_length in HR. cbn [length] in HR.
    replace (Z.of_nat (length pre) + 1 + 1)%Z with (Z.of_nat (length pre + 2)) by lia. exact HR.
Qed.

End Runs.

(* from the big-step reading back to the parser as it is invoked *)
Definition spec_clean (raw : list N) : list N :=
  filter (fun c => negb (is_ascii_tab_or_newline c))
         (strip_leading_and_trailing is_c0_control_or_space raw).

Theorem spec_parse_of_runs hp raw base r :
  Runs hp (spec_clean raw) base m0 r -> spec_basic_url_parse hp raw base = r.
Proof.
  intros HR. unfold spec_basic_url_parse. fold (spec_clean raw).
  apply (runs_run hp (spec_clean raw) base m0 r HR).
  exact (spec_basic_url_parse_never_out_of_fuel hp raw base).
Qed.
