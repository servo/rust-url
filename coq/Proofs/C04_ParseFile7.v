(* Proofs/C04_ParseFile7.v - the EXACT failing class of finding F-C04-7.
   Inside C04_ParseFile.file_rel_unsafe (a path-relative reference against a file base whose shortened path
   does not end in '/') the path state starts its first segment behind a byte that is not '/'.  first_seg
   runs the loop up to the end of that first segment: either the drive-letter arm of the loop fires (the
   serialization is exactly ".../C:" when an ordinary character is read: a '/' is pushed and the state becomes
   one of C04_PathFile.path_inv - harmless), or the segment ends (separator, '?', '#', end of input) and
   finish_segment sees its percent-encoded text behind a byte that is not '/': the debug assertion
   `serialization[segment_start - 1] == '/'` fails iff that text is a double-dot spelling
   ("..", ".%2e", "%2e.", "%2e%2e", any case).  Every other outcome re-establishes the invariant.
   Hence parse_url = PPanic  <->  debug assertions on /\ known_c04_7x. *)
From RU Require Import Base.Prelude Base.Utf8 Model.AsciiSet Gen.Tables Model.PercentEncoding
  Model.HostT Model.UrlRecord Model.Parser Model.WF
  Proofs.ListN Proofs.C06_List Proofs.C02_Parts Proofs.C03_WF Proofs.C06_WFI Proofs.C06_Tail Proofs.C06_Steps
  Proofs.C06_PathParser Proofs.C04_Parse Proofs.C04_PathTotal Proofs.C04_ParseTotal Proofs.C04_PathFile Proofs.C04_ParseFile.

(* the condition of the drive-letter arm of parse_path's loop (file scheme) *)
Definition armc (ps : N) (ser : list N) : bool := (ps <? nlen ser) && is_normalized_wdl (nskipn (ps + 1) ser).

Inductive fs_out := FsArm | FsEnd (ser : list N) (ews : bool) (rest : list N).

(* the loop of parse_path (Context::UrlParser, file scheme) up to the end of the current segment *)
Fixpoint first_seg (ps : N) (l ser pend : list N) : fs_out :=
  match l with
  | [] => FsEnd (push_pending CUrlParser STFile ser pend) false []
  | c :: r =>
      if is_tnl c then first_seg ps r (push_pending CUrlParser STFile ser pend) []
      else if (c =? 47) || (c =? 92) then FsEnd (push_pending CUrlParser STFile ser pend) true r
      else if (c =? 63) || (c =? 35) then FsEnd (push_pending CUrlParser STFile ser pend) false l
      else if armc ps ser then FsArm
      else first_seg ps r ser (c :: pend)
  end.

Section Unsafe.
Variables (dbg : bool) (ps : N) (s1 : list N).
Hypothesis H1 : ps <= nlen s1.

Notation loop := (parse_path_loop dbg CUrlParser STFile ps).

Definition good_res (X : pres (list N * bool * list N)) : Prop :=
  exists s2 hh' rem, X = POk (file_path_fixup STFile ps s2, hh', rem) /\ ps <= nlen s2 /\ rem_ok rem.

Lemma good_of_path_res ser X : path_res STFile ps ps ser X -> ps <= nlen ser -> good_res X.
Proof using.
  intros (s2 & hh' & rem & E & Ha & Hr) L. exists s2, hh', rem. split; [exact E|]. split; [|exact Hr].
  eapply pre_len; [exact Ha | exact L].
Qed.

(* the state after the drive-letter arm *)
Lemma arm_state x : armc ps (s1 ++ x) = true -> path_inv ps ps ((s1 ++ x) ++ [47]) (nlen s1 + 1).
Proof using H1.
  intros Ha. unfold armc in Ha. apply andb_true_iff in Ha. destruct Ha as [Ha1 Ha2].
  set (ser := s1 ++ x) in *.
  destruct (wdl_path_shape ps ser Ha2) as (a & Hal & Ls & Hn1 & Hn2).
  assert (a <> 46 /\ a <> 37) as Hane by (unfold is_alpha, is_upper, is_lower in Hal; lia).
  assert (nlen s1 = ps \/ nlen s1 = ps + 1 \/ nlen s1 = ps + 2 \/ nlen s1 = ps + 3) as Hc.
  { unfold ser in Ls. rewrite nlen_app in Ls. lia. }
  assert (nlen (ser ++ [47]) = ps + 4) as L4 by (rewrite nlen_app, Ls; change (nlen [47]) with 1; lia).
  destruct Hc as [Hc|[Hc|[Hc|Hc]]]; rewrite Hc.
  - right. unfold bad_seg. rewrite L4. split; [lia|]. split; [lia|]. split; [lia|].
    exists a. rewrite nnth_app_lt by lia. split; [exact Hn1|]. split; [tauto|]. split; [tauto|]. intros _. lia.
  - right. unfold bad_seg. rewrite L4. split; [lia|]. split; [lia|]. split; [lia|].
    exists 58. replace (ps + 1 + 1) with (ps + 2) by lia. rewrite nnth_app_lt by lia.
    split; [exact Hn2|]. split; [discriminate|]. split; [discriminate|]. intros X. discriminate X.
  - right. unfold bad_seg. rewrite L4. split; [lia|]. split; [lia|]. split; [lia|].
    exists 47. replace (ps + 2 + 1) with (nlen ser) by lia. rewrite nnth_last.
    split; [reflexivity|]. split; [discriminate|]. split; [discriminate|]. intros X. discriminate X.
  - left. unfold seg_inv. rewrite L4. replace (ps + 3 + 1 - 1) with (nlen ser) by lia. rewrite nnth_last.
    repeat split; lia.
Qed.

(* the loop, cut at the end of the first segment *)
Lemma first_seg_spec l : forall x pend hh, pend = [] \/ armc ps (s1 ++ x) = false ->
  match first_seg ps l (s1 ++ x) pend with
  | FsEnd s ews rest =>
      (exists x', s = s1 ++ x') /\ (ews = false -> rem_ok rest)
      /\ loop l (s1 ++ x) (nlen s1) pend hh
         = if ews then ' (s2, hh2) <~ finish_segment dbg STFile ps (s ++ [47]) (nlen s1) true hh ;;
                       loop rest s2 (nlen s2) [] hh2
           else ' (s2, hh2) <~ finish_segment dbg STFile ps s (nlen s1) false hh ;;
                POk (file_path_fixup STFile ps s2, hh2, rest)
  | FsArm => good_res (loop l (s1 ++ x) (nlen s1) pend hh)
  end.
Proof using H1.
  induction l as [|c r IH]; intros x pend hh Hp; cbn [first_seg parse_path_loop].
  - destruct (push_pending_app STFile CUrlParser pend (s1 ++ x)) as [x0 Ex]. rewrite Ex.
    split; [exists (x ++ x0); symmetry; apply app_assoc|]. split; [intros _; exact rem_ok_nil | reflexivity].
  - destruct (push_pending_app STFile CUrlParser pend (s1 ++ x)) as [x0 Ex].
    destruct (is_tnl c) eqn:Et.
    { rewrite Ex, <- app_assoc. apply IH. left. reflexivity. }
    cbn [ctx_eqb negb andb st_is_special st_is_file]. rewrite !andb_true_r.
    destruct ((c =? 47) || (c =? 92)).
    { rewrite Ex. split; [exists (x ++ x0); symmetry; apply app_assoc|]. split; [discriminate | reflexivity]. }
    destruct ((c =? 63) || (c =? 35)) eqn:Eq.
    { rewrite Ex. split; [exists (x ++ x0); symmetry; apply app_assoc|].
      split; [intros _; apply rem_ok_cons; [exact Et | exact Eq] | reflexivity]. }
    fold (armc ps (s1 ++ x)).
    destruct (armc ps (s1 ++ x)) eqn:Ea.
    + destruct Hp as [-> | Hp]; [|congruence]. cbn [push_pending].
      eapply good_of_path_res; [apply (loop_any dbg STFile ps ps ltac:(lia)); apply arm_state; exact Ea|].
      rewrite !nlen_app. lia.
    + apply IH. right. exact Ea.
Qed.

Hypothesis H2 : ends_with_byte 47 s1 = false.
Hypothesis H3 : nlen s1 = ps \/ nnth s1 ps = Some 47.

Lemma not_slash_before : (if 1 <=? nlen s1 then nnth s1 (nlen s1 - 1) else None) <> Some 47.
Proof using H1 H2 H3.
  destruct (1 <=? nlen s1) eqn:E; [|discriminate]. intros X.
  assert (ends_with_byte 47 s1 = true) as Y by (apply ends_with_byte_nnth; split; [lia | exact X]). congruence.
Qed.

(* finish_segment on the first segment x (behind s1, which does not end in '/') *)
Lemma finish_first x (ews : bool) hh :
  let ser := if ews then (s1 ++ x) ++ [47] else s1 ++ x in
  if dbg && is_double_dot x then finish_segment dbg STFile ps ser (nlen s1) ews hh = PPanic
  else exists s' hh', finish_segment dbg STFile ps ser (nlen s1) ews hh = POk (s', hh')
                      /\ ps <= nlen s' /\ (ews = true -> seg_inv ps ps s' (nlen s')).
Proof using H1 H2 H3.
  cbv zeta. set (ser := if ews then (s1 ++ x) ++ [47] else s1 ++ x).
  assert (nlen ser = nlen s1 + nlen x + (if ews then 1 else 0)) as Lser.
  { subst ser. destruct ews; rewrite !nlen_app; [change (nlen [47]) with 1|]; lia. }
  assert (slice_o ser (nlen s1) (if ews then nlen ser - 1 else nlen ser) = Some x) as Es.
  { rewrite slice_o_some by (destruct ews; lia).
    replace ((if ews then nlen ser - 1 else nlen ser) - nlen s1) with (nlen x) by (destruct ews; lia).
    subst ser. destruct ews.
    - rewrite <- app_assoc, nskipn_app_exact, nfirstn_app_exact. reflexivity.
    - rewrite nskipn_app_exact. rewrite nfirstn_all by lia. reflexivity. }
  assert (truncate ser (nlen s1) = s1) as Et.
  { unfold truncate. subst ser. destruct ews; [rewrite <- app_assoc|]; apply nfirstn_app_exact. }
  assert (nnth ser (nlen s1 - 1) = nnth s1 (nlen s1 - 1) \/ nlen s1 = 0) as Eb.
  { destruct (N.eq_dec (nlen s1) 0) as [E|E]; [right; exact E|]. left.
    subst ser. destruct ews; [rewrite <- app_assoc|]; apply nnth_app_lt; lia. }
  assert (forall a, ends_with_byte 47 (a ++ [47]) = true) as Esn by (intros a; rewrite ends_with_byte_snoc; reflexivity).
  assert (ews = true -> ser = (s1 ++ x) ++ [47]) as Eser by (intros ->; reflexivity).
  unfold finish_segment. rewrite Es. cbn [of_option pbind].
  destruct (is_double_dot x) eqn:Edd.
  - destruct dbg; cbn [andb].
    + (* the debug assertion fails *)
      pose proof not_slash_before as Hns.
      destruct (1 <=? nlen s1) eqn:E1.
      * destruct Eb as [Eb|Eb]; [|lia]. rewrite Eb.
        destruct (nnth s1 (nlen s1 - 1)) as [b|]; [|reflexivity].
        destruct (b =? 47) eqn:E47; [apply N.eqb_eq in E47; subst b; congruence | reflexivity].
      * reflexivity.
    + cbn [pbind]. rewrite Et, H2. cbn [andb].
      assert (nlen s1 = ps \/ (exists i, ps <= i /\ nnth s1 i = Some 47)) as Hpre.
      { destruct H3 as [E|E]; [left; exact E | right; exists ps; split; [lia | exact E]]. }
      destruct (shorten_any STFile ps s1 Hpre) as (n & En & Hn). rewrite En. cbn [pbind].
      assert (ps <= nlen (nfirstn n s1)) as Ln by (rewrite nlen_nfirstn_min; lia).
      destruct ews; cbn [andb].
      * destruct (ends_with_byte 47 (nfirstn n s1)) eqn:E3; cbn [negb].
        -- exists (nfirstn n s1), hh. split; [reflexivity|]. split; [exact Ln|]. intros _.
           apply ends_with_byte_nnth in E3. destruct E3 as [E3 E4]. unfold seg_inv. repeat split; try lia. exact E4.
        -- exists (nfirstn n s1 ++ [47]), hh. split; [reflexivity|]. split; [rewrite nlen_app; lia|]. intros _.
           apply seg_inv_snoc; lia.
      * exists (nfirstn n s1), hh. split; [reflexivity|]. split; [exact Ln | discriminate].
  - rewrite andb_false_r. destruct (is_single_dot x).
    + rewrite Et, H2. exists (s1 ++ [47]), hh. split; [reflexivity|]. split; [rewrite nlen_app; lia|]. intros _.
      apply seg_inv_snoc; lia.
    + destruct (st_is_file STFile && (nlen s1 =? ps + 1) && is_wdl x) eqn:Ew.
      * apply andb_true_iff in Ew. destruct Ew as [_ Ew]. destruct (is_wdl_head x Ew) as (c & r & -> & _).
        rewrite Et. eexists. exists false. split; [reflexivity|]. split; [rewrite !nlen_app; lia|]. intros ->.
        rewrite app_assoc. apply seg_inv_snoc; rewrite nlen_app; lia.
      * exists ser, hh. split; [reflexivity|]. split; [lia|]. intros E. rewrite (Eser E).
        apply seg_inv_snoc; rewrite nlen_app; lia.
Qed.

Theorem parse_path_unsafe hh l :
  match first_seg ps l s1 [] with
  | FsEnd s _ _ =>
      if dbg && is_double_dot (nskipn (nlen s1) s) then parse_path dbg CUrlParser STFile hh ps s1 l = PPanic
      else good_res (parse_path dbg CUrlParser STFile hh ps s1 l)
  | FsArm => good_res (parse_path dbg CUrlParser STFile hh ps s1 l)
  end.
Proof using H1 H2 H3.
  unfold parse_path. pose proof (first_seg_spec l [] [] hh (or_introl eq_refl)) as S. rewrite app_nil_r in S.
  destruct (first_seg ps l s1 []) as [|s ews rest]; [exact S|].
  destruct S as ((x & ->) & Hrem & E). rewrite E. rewrite nskipn_app_exact.
  pose proof (finish_first x ews hh) as F. cbv zeta in F.
  destruct (dbg && is_double_dot x).
  - destruct ews; rewrite F; reflexivity.
  - destruct F as (s' & hh' & Ef & L & I). destruct ews.
    + rewrite Ef. cbn [pbind].
      eapply good_of_path_res; [apply (loop_any dbg STFile ps ps ltac:(lia)); left; apply I; reflexivity|].
      destruct (I eq_refl) as (_ & _ & _ & _ & _). exact L.
    + rewrite Ef. cbn [pbind]. exists s', hh', rest. split; [reflexivity|]. split; [exact L | apply Hrem; reflexivity].
Qed.
End Unsafe.

(* ---------- the file state ---------- *)
(* the exact class: file_rel_unsafe, the drive-letter arm does not fire inside the first segment, and the
   percent-encoded first segment is a double-dot spelling *)
Definition file_rel_dd (b : url) (l : list N) : bool :=
  file_rel_unsafe b l
  && match shorten_path STFile (path_start b) (b_before_query b) with
     | POk s1 => match first_seg (path_start b) l s1 [] with
                 | FsEnd s _ _ => is_double_dot (nskipn (nlen s1) s)
                 | FsArm => false
                 end
     | _ => false
     end.

(* shorten_path on the path of a well-formed base that is not cannot-be-a-base *)
Lemma shorten_base b : wf_b b = true -> nnth (ser b) (scheme_end b + 1) = Some 47 ->
  exists s1, shorten_path STFile (path_start b) (b_before_query b) = POk s1
    /\ path_start b <= nlen s1 /\ (nlen s1 = path_start b \/ nnth s1 (path_start b) = Some 47).
Proof.
  intros W Hs. destruct (bq_shape b W) as (Ebq & P1 & P2).
  assert (nlen (b_before_query b) = path_end b) as Lbq by (rewrite Ebq; apply nlen_nfirstn; exact P2).
  assert (nlen (b_before_query b) = path_start b \/ nnth (b_before_query b) (path_start b) = Some 47) as Hb.
  { destruct (N.eq_dec (path_end b) (path_start b)) as [E|E]; [left; lia|]. right.
    rewrite Ebq. rewrite nnth_nfirstn by lia. apply base_path_slash; [exact W | exact Hs | lia]. }
  destruct (shorten_any STFile (path_start b) (b_before_query b)) as (n & En & Hn).
  { destruct Hb as [E|E]; [left; exact E | right; exists (path_start b); split; [lia | exact E]]. }
  exists (nfirstn n (b_before_query b)). split; [exact En|].
  split; [rewrite nlen_nfirstn_min; lia|].
  destruct Hb as [E|E].
  - left. rewrite nlen_nfirstn_min. lia.
  - right. pose proof (nnth_lt _ _ _ E) as Lt.
    destruct Hn as [Hn|Hn]; [rewrite nnth_nfirstn by lia; exact E | rewrite nfirstn_all by lia; exact E].
Qed.

Section File7.
Variable dbg : bool.
Variable hp : list N -> result host.
Variable hd : host -> list N.
Variable ovr : option (list N -> list N).

Theorem parse_file_exact st b l : wf_b b = true -> nnth (ser b) (scheme_end b + 1) = Some 47 ->
  (parse_file dbg hp hd ovr CUrlParser st (Some b) l = PPanic <-> dbg = true /\ file_rel_dd b l = true).
Proof.
  intros W Hs. unfold file_rel_dd.
  destruct (file_rel_unsafe b l) eqn:Eu; cbn [andb].
  2:{ pose proof (parse_file_ok dbg hp hd ovr st (Some b) l (conj W Eu)) as Hok.
      split; [intros X; contradiction | intros [_ X]; discriminate]. }
  destruct (shorten_base b W Hs) as (s1 & Es & L1 & Hsl).
  unfold file_rel_unsafe in Eu. rewrite Es in Eu. rewrite Es.
  destruct (inp_next l) as [[c af]|] eqn:En; [|discriminate].
  destruct (is_slash_or_bslash c) eqn:Esl; [discriminate|].
  destruct ((c =? 63) || (c =? 35)) eqn:Eq; [discriminate|].
  destruct (starts_with_wdl_segment l) eqn:Ew; [discriminate|].
  apply negb_true_iff in Eu.
  apply orb_false_iff in Eq. destruct Eq as [E63 E35].
  unfold parse_file, inp_split_first. rewrite En, Esl, E63, E35, Ew. cbn [negb]. rewrite Es. cbn [pbind].
  pose proof (parse_path_unsafe dbg (path_start b) s1 L1 Eu Hsl true l) as P.
  destruct (first_seg (path_start b) l s1 []) as [|s ews rest].
  - destruct P as (s2 & hh' & rem & E & L2 & Hr). rewrite E. cbn [pbind].
    split; [|intros [_ X]; discriminate]. intros X. exfalso. revert X.
    apply wqf_ok; [exact Hr|]. intros _ _. apply fixup_slash; [reflexivity | exact L2].
  - destruct (is_double_dot (nskipn (nlen s1) s)); [destruct dbg|]; cbn [andb] in P.
    + rewrite P. cbn [pbind]. split; [intros _; split; reflexivity | reflexivity].
    + destruct P as (s2 & hh' & rem & E & L2 & Hr). rewrite E. cbn [pbind].
      split; [|intros [X _]; discriminate]. intros X. exfalso. revert X.
      apply wqf_ok; [exact Hr|]. intros _ _. apply fixup_slash; [reflexivity | exact L2].
    + rewrite andb_false_r in P. destruct P as (s2 & hh' & rem & E & L2 & Hr). rewrite E. cbn [pbind].
      split; [|intros [_ X]; discriminate]. intros X. exfalso. revert X.
      apply wqf_ok; [exact Hr|]. intros _ _. apply fixup_slash; [reflexivity | exact L2].
Qed.
End File7.

(* ---------- top level ---------- *)
Definition known_c04_7x (base : option url) (input : list N) : bool :=
  let l := input_new_trim_c0 input in
  match parse_scheme CUrlParser l with
  | Some (sch, rem) =>
      st_is_file (scheme_type_of sch)
      && match base with Some b => list_eqb (b_scheme b) s_file && file_rel_dd b rem | None => false end
  | None => match base with Some b => list_eqb (b_scheme b) s_file && file_rel_dd b l | None => false end
  end.

Lemma known_7x_7b base input : known_c04_7x base input = true -> known_c04_7b base input = true.
Proof.
  unfold known_c04_7x, known_c04_7b, file_rel_dd. cbv zeta.
  destruct (parse_scheme CUrlParser (input_new_trim_c0 input)) as [[sch rem]|].
  - destruct (st_is_file (scheme_type_of sch)); [|discriminate]. cbn [andb].
    destruct base as [b|]; [|discriminate]. destruct (list_eqb (b_scheme b) s_file); [|discriminate]. cbn [andb].
    intros H. apply andb_true_iff in H. tauto.
  - destruct base as [b|]; [|discriminate]. destruct (list_eqb (b_scheme b) s_file); [|discriminate]. cbn [andb].
    intros H. apply andb_true_iff in H. tauto.
Qed.

Lemma scheme_file_eq sch : st_is_file (scheme_type_of sch) = true -> sch = s_file.
Proof.
  unfold scheme_type_of.
  destruct (list_eqb sch s_http || list_eqb sch s_https || list_eqb sch s_ws || list_eqb sch s_wss || list_eqb sch s_ftp);
    [discriminate|].
  destruct (list_eqb sch s_file) eqn:E; [|discriminate]. intros _. apply list_eqb_spec. exact E.
Qed.

Section Top7.
Variable dbg : bool.
Variable hp hpo : list N -> result host.
Variable hd : host -> list N.
Variable ovr : option (list N -> list N).

Theorem parse_url_panic_iff base input :
  match base with Some b => base_ok b = true | None => True end ->
  (parse_url dbg hp hpo hd ovr base input = PPanic <-> dbg = true /\ known_c04_7x base input = true).
Proof.
  intros Hb.
  destruct (known_c04_7b base input) eqn:E7b.
  2:{ pose proof (parse_url_ok3 dbg hp hpo hd ovr base input Hb E7b) as Hok.
      split; [intros X; contradiction|]. intros [_ X]. apply known_7x_7b in X. congruence. }
  unfold known_c04_7b in E7b. unfold known_c04_7x, parse_url. cbv zeta in *.
  destruct (parse_scheme CUrlParser (input_new_trim_c0 input)) as [[sch rem]|].
  - destruct (st_is_file (scheme_type_of sch)) eqn:Ef; [|discriminate]. cbn [andb] in *.
    destruct base as [b|]; [|discriminate].
    destruct (list_eqb (b_scheme b) s_file) eqn:Efile; [|discriminate]. cbn [andb] in *.
    pose proof (scheme_file_eq sch Ef) as ->.
    unfold parse_with_scheme. change (to_u32 (nlen s_file)) with (POk 4). cbn [pbind].
    change (scheme_type_of s_file) with STFile. cbv iota. rewrite Efile.
    unfold base_ok in Hb. apply andb_true_iff in Hb. destruct Hb as [W Hsl].
    apply list_eqb_spec in Efile. rewrite Efile in Hsl. change (st_is_special (scheme_type_of s_file)) with true in Hsl.
    cbn [negb orb] in Hsl.
    apply parse_file_exact; [exact W | apply byte_eqb_nnth; exact Hsl].
  - destruct base as [b|]; [|discriminate].
    destruct (list_eqb (b_scheme b) s_file) eqn:Efile; [|discriminate]. cbn [andb] in *.
    unfold base_ok in Hb. apply andb_true_iff in Hb. destruct Hb as [W Hsl].
    apply list_eqb_spec in Efile. rewrite Efile in Hsl. change (st_is_special (scheme_type_of s_file)) with true in Hsl.
    cbn [negb orb] in Hsl.
    assert (inp_starts_with_char 35 (input_new_trim_c0 input) = false) as E35.
    { unfold file_rel_unsafe, inp_starts_with_char in *. destruct (inp_next (input_new_trim_c0 input)) as [[c r]|]; [|reflexivity].
      destruct (is_slash_or_bslash c); [discriminate|].
      destruct (c =? 35); [rewrite orb_true_r in E7b; discriminate | reflexivity]. }
    rewrite E35. rewrite (cannot_be_a_base_eval b W). rewrite Hsl. cbn [negb]. rewrite Efile.
    change (st_is_file (scheme_type_of s_file)) with true. cbv iota.
    apply parse_file_exact; [exact W | apply byte_eqb_nnth; exact Hsl].
Qed.
End Top7.
