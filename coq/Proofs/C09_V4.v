(* Proofs/C09_V4.v - IPv4: every valid 1-4 part spelling (decimal / 0-octal / 0x-hex parts, optional
   trailing dot) parses to its positional value. *)
From RU Require Import Base.Prelude Model.AsciiSet Model.HostT Model.Host.

(* ------------------------------------------------------------------ spellings *)

Inductive radix := Dec | Oct | Hex (upper_x : bool).
Definition radix_n (r : radix) : N := match r with Dec => 10 | Oct => 8 | Hex _ => 16 end.

Definition dval (c : N) : N := match hex_val c with Some d => d | None => 0 end.
Definition horner (r : N) (ds : list N) (acc : N) : N := fold_left (fun a c => a * r + dval c) ds acc.

(* the digit string of one part (without prefix) and when it is a spelling of that radix *)
Definition digits_ok (r : radix) (ds : list N) : Prop :=
  match r with
  | Dec => forallb is_digit ds = true /\ ds <> []
           /\ match ds with c :: _ :: _ => c <> 48 | _ => True end      (* "0" alone is decimal; a longer 0-led string is octal *)
  | Oct => forallb is_octal_digit ds = true /\ ds <> []
  | Hex _ => forallb is_hex_digit ds = true                             (* "0x" alone is 0 *)
  end.
Definition spell (p : radix * list N) : list N :=
  match fst p with
  | Dec => snd p
  | Oct => 48 :: snd p
  | Hex u => 48 :: (if u then 88 else 120) :: snd p
  end.
Definition pvalue (p : radix * list N) : N := horner (radix_n (fst p)) (snd p) 0.
Definition part_ok (p : radix * list N) : Prop := digits_ok (fst p) (snd p).

Fixpoint join_dot (l : list (list N)) : list N :=
  match l with
  | [] => []
  | [x] => x
  | x :: r => x ++ 46 :: join_dot r
  end.
Definition spell_addr (ps : list (radix * list N)) (trailing_dot : bool) : list N :=
  join_dot (map spell ps) ++ (if trailing_dot then [46] else []).

(* positional value of 1-4 numbers *)
Definition positional (vs : list N) : N :=
  match vs with
  | [a] => a
  | [a; b] => a * 16777216 + b
  | [a; b; c] => a * 16777216 + b * 65536 + c
  | [a; b; c; d] => a * 16777216 + b * 65536 + c * 256 + d
  | _ => 0
  end.
Definition in_range (vs : list N) : Prop :=
  match vs with
  | [a] => a < 4294967296
  | [a; b] => a <= 255 /\ b < 16777216
  | [a; b; c] => a <= 255 /\ b <= 255 /\ c < 65536
  | [a; b; c; d] => a <= 255 /\ b <= 255 /\ c <= 255 /\ d < 256
  | _ => False
  end.

(* ------------------------------------------------------------------ numbers *)

Lemma horner_mono r ds : forall acc, 1 <= r -> acc <= horner r ds acc.
Proof.
  unfold horner. induction ds as [|c ds IH]; intros acc Hr; cbn [fold_left]; [lia|].
  specialize (IH (acc * r + dval c) Hr). nia.
Qed.

Lemma radix_acc_horner r ds : forall acc, 1 <= r ->
  forallb (fun c => match hex_val c with Some d => d <? r | None => false end) ds = true ->
  horner r ds acc <= U32_MAX -> radix_acc r ds acc = Some (horner r ds acc).
Proof.
  induction ds as [|c ds IH]; intros acc Hr Hd Hv; [reflexivity|].
  cbn [forallb] in Hd. apply andb_true_iff in Hd. destruct Hd as [Hc Hd].
  cbn [radix_acc]. unfold horner in *. cbn [fold_left] in *.
  assert (Ed : exists d, hex_val c = Some d /\ dval c = d).
  { unfold dval. destruct (hex_val c) as [d|]; [eauto | discriminate]. }
  destruct Ed as (d & Ed & Edv). rewrite Ed in *. rewrite Hc. rewrite Edv in *.
  pose proof (horner_mono r ds (acc * r + d) Hr) as Hm. unfold horner in Hm.
  replace (U32_MAX <? acc * r + d) with false by (unfold U32_MAX in *; lia).
  apply IH; assumption.
Qed.

(* where hex_val is defined, and what it returns there *)
Lemma hex_val_spec c :
  match hex_val c with
  | Some d => (48 <= c <= 57 /\ d = c - 48) \/ (65 <= c <= 70 /\ d = c - 55) \/ (97 <= c <= 102 /\ d = c - 87)
  | None => c < 48 \/ 57 < c < 65 \/ 70 < c < 97 \/ 102 < c
  end.
Proof.
  unfold hex_val, is_digit. destruct ((48 <=? c) && (c <=? 57)) eqn:E1; [lia|].
  destruct ((65 <=? c) && (c <=? 70)) eqn:E2; [lia|]. destruct ((97 <=? c) && (c <=? 102)) eqn:E3; lia.
Qed.

Lemma digit_classes c :
  (is_digit c = true -> match hex_val c with Some d => d <? 10 | None => false end = true)
  /\ (is_octal_digit c = true -> match hex_val c with Some d => d <? 8 | None => false end = true)
  /\ (is_hex_digit c = true -> match hex_val c with Some d => d <? 16 | None => false end = true).
Proof.
  pose proof (hex_val_spec c) as H. unfold is_octal_digit, is_hex_digit, is_digit.
  destruct (hex_val c); repeat split; intros; try discriminate; lia.
Qed.

Lemma forallb_impl {A} (f g : A -> bool) l : (forall x, f x = true -> g x = true) -> forallb f l = true -> forallb g l = true.
Proof. intros H. induction l as [|x l IH]; cbn [forallb]; [reflexivity|]. rewrite !andb_true_iff. intros [H1 H2]. split; auto. Qed.

(* a digit string carries no sign, so from_str_radix is the digit loop *)
Lemma from_str_radix_acc ds r : ds <> [] ->
  forallb (fun c => match hex_val c with Some d => d <? r | None => false end) ds = true ->
  u32_from_str_radix ds r = radix_acc r ds 0.
Proof.
  intros Hn Hd. destruct ds as [|c ds]; [congruence|].
  assert (Hc : c <> 43 /\ c <> 45).
  { cbn [forallb] in Hd. apply andb_true_iff in Hd. destruct Hd as [Hc _].
    pose proof (hex_val_spec c) as S. destruct (hex_val c); [lia | discriminate]. }
  unfold u32_from_str_radix. destruct ds.
  - replace ((c =? 43) || (c =? 45)) with false by lia. reflexivity.
  - replace (c =? 43) with false by lia. reflexivity.
Qed.

Lemma from_str_radix_ok ds r : ds <> [] -> 1 <= r ->
  forallb (fun c => match hex_val c with Some d => d <? r | None => false end) ds = true ->
  horner r ds 0 <= U32_MAX -> u32_from_str_radix ds r = Some (horner r ds 0).
Proof. intros Hn Hr Hd Hv. rewrite from_str_radix_acc by assumption. apply radix_acc_horner; assumption. Qed.

Theorem parse_ipv4number_spelling p : part_ok p -> pvalue p <= U32_MAX ->
  parse_ipv4number (spell p) = Some (Some (pvalue p)).
Proof.
  destruct p as [r ds]. unfold part_ok, pvalue, spell. cbn [fst snd]. intros Hok Hv.
  destruct r as [| |u]; cbn [digits_ok radix_n] in *.
  - (* decimal *)
    destruct Hok as (Hd & Hn & Hz).
    assert (Hd' := forallb_impl _ _ ds (fun c => proj1 (digit_classes c)) Hd).
    unfold parse_ipv4number. destruct ds as [|c0 [|c1 rest]]; [congruence| |].
    + replace (10 =? 8) with false by reflexivity. replace (10 =? 10) with true by reflexivity.
      rewrite Hd. cbn [negb]. rewrite from_str_radix_ok; try assumption; [reflexivity|lia].
    + replace ((c0 =? 48) && ((c1 =? 120) || (c1 =? 88))) with false by lia.
      replace (c0 =? 48) with false by lia.
      replace (10 =? 8) with false by reflexivity. replace (10 =? 10) with true by reflexivity.
      rewrite Hd. cbn [negb]. rewrite from_str_radix_ok; try assumption; [reflexivity|lia].
  - (* octal *)
    destruct Hok as (Hd & Hn).
    assert (Hd' := forallb_impl _ _ ds (fun c => proj1 (proj2 (digit_classes c))) Hd).
    unfold parse_ipv4number. destruct ds as [|c1 rest]; [congruence|].
    assert (c1 <> 120 /\ c1 <> 88).
    { cbn [forallb] in Hd. apply andb_true_iff in Hd. unfold is_octal_digit in Hd. lia. }
    replace ((48 =? 48) && ((c1 =? 120) || (c1 =? 88))) with false by lia.
    replace (48 =? 48) with true by reflexivity.
    replace (8 =? 8) with true by reflexivity.
    rewrite Hd. cbn [negb]. rewrite from_str_radix_ok; try assumption; [reflexivity|lia].
  - (* hex *)
    assert (Hd' := forallb_impl _ _ ds (fun c => proj2 (proj2 (digit_classes c))) Hok).
    unfold parse_ipv4number.
    replace ((48 =? 48) && (((if u then 88 else 120) =? 120) || ((if u then 88 else 120) =? 88))) with true
      by (destruct u; reflexivity).
    destruct ds as [|c rest]; [reflexivity|].
    replace (16 =? 8) with false by reflexivity. replace (16 =? 10) with false by reflexivity.
    rewrite Hok. cbn [negb]. rewrite from_str_radix_ok; try assumption; [reflexivity|discriminate|lia].
Qed.

(* ------------------------------------------------------------------ split *)

Definition dotfree (x : list N) : Prop := ~ In 46 x.

Lemma split_dot_dotfree x : dotfree x -> split_dot x = (x, []).
Proof.
  induction x as [|c x IH]; intros H; [reflexivity|]. cbn [split_dot].
  rewrite IH by (intros Hin; apply H; right; exact Hin).
  replace (c =? 46) with false; [reflexivity|]. symmetry. apply N.eqb_neq. intros ->. apply H. left. reflexivity.
Qed.

Lemma split_dot_app x rest : dotfree x ->
  split_dot (x ++ 46 :: rest) = (x, split_dot_list rest).
Proof.
  induction x as [|c x IH]; intros H.
  - cbn [app split_dot]. unfold split_dot_list. destruct (split_dot rest) as [h t]. reflexivity.
  - cbn [app split_dot]. rewrite IH by (intros Hin; apply H; right; exact Hin).
    replace (c =? 46) with false; [reflexivity|]. symmetry. apply N.eqb_neq. intros ->. apply H. left. reflexivity.
Qed.

Lemma split_join l : l <> [] -> Forall dotfree l ->
  split_dot_list (join_dot l) = l /\ split_dot_list (join_dot l ++ [46]) = l ++ [[]].
Proof.
  induction l as [|x l IH]; intros Hn Hd; [congruence|].
  inversion Hd as [|? ? Hx Hl]; subst.
  destruct l as [|y l'].
  - cbn [join_dot]. unfold split_dot_list. rewrite split_dot_dotfree by exact Hx.
    rewrite split_dot_app by exact Hx. split; reflexivity.
  - assert (Hn' : y :: l' <> []) by discriminate. destruct (IH Hn' Hl) as [IH1 IH2].
    change (join_dot (x :: y :: l')) with (x ++ 46 :: join_dot (y :: l')). split.
    + unfold split_dot_list at 1. rewrite split_dot_app by exact Hx. rewrite IH1. reflexivity.
    + rewrite <- app_assoc. cbn [app]. unfold split_dot_list at 1. rewrite split_dot_app by exact Hx.
      rewrite IH2. reflexivity.
Qed.

Lemma spell_dotfree p : part_ok p -> dotfree (spell p) /\ spell p <> [].
Proof.
  destruct p as [r ds]. unfold part_ok, spell, dotfree. cbn [fst snd].
  assert (G : forall f, (forall c, f c = true -> c <> 46) -> forallb f ds = true -> ~ In 46 ds).
  { intros f Hf Hall Hin. rewrite forallb_forall in Hall. apply (Hf 46 (Hall 46 Hin)). reflexivity. }
  destruct r as [| |u]; cbn [digits_ok]; intros H.
  - destruct H as (H1 & H2 & _). split; [|exact H2]. apply (G is_digit); [|exact H1]. unfold is_digit. intros; lia.
  - destruct H as (H1 & H2). split; [|discriminate]. intros [Hc|Hin]; [discriminate|].
    revert Hin. apply (G is_octal_digit); [|exact H1]. unfold is_octal_digit. intros; lia.
  - split; [|discriminate]. intros [Hc|[Hc|Hin]]; [discriminate|destruct u; discriminate|].
    revert Hin. apply (G is_hex_digit); [|exact H]. unfold is_hex_digit. intros c.
    pose proof (hex_val_spec c) as S. destruct (hex_val c); [lia | discriminate].
Qed.

Lemma ipv4_numbers_spell ps : Forall part_ok ps -> Forall (fun p => pvalue p <= U32_MAX) ps ->
  ipv4_numbers (map spell ps) = Some (map pvalue ps).
Proof.
  induction ps as [|p ps IH]; intros H1 H2; [reflexivity|].
  inversion H1; subst. inversion H2; subst. cbn [map ipv4_numbers].
  rewrite parse_ipv4number_spelling by assumption. rewrite IH by assumption. reflexivity.
Qed.

(* ------------------------------------------------------------------ the value theorem *)

Lemma rev_spell_head ps r : Forall part_ok ps -> rev (map spell ps) <> [] :: r.
Proof.
  intros Hok Hrv. destruct ps as [|p ps _] using rev_ind; [discriminate Hrv|].
  rewrite map_app, rev_app_distr in Hrv. cbn [map rev app] in Hrv. inversion Hrv as [[Hs Hr]].
  rewrite Forall_forall in Hok. refine (proj2 (spell_dotfree p _) Hs). apply Hok. apply in_or_app. right. left. reflexivity.
Qed.

Theorem parse_ipv4addr_value ps dot :
  Forall part_ok ps -> in_range (map pvalue ps) ->
  parse_ipv4addr (spell_addr ps dot) = XOk (positional (map pvalue ps)).
Proof.
  intros Hok Hr.
  assert (Hn : map spell ps <> []).
  { destruct ps; [cbn in Hr; contradiction | discriminate]. }
  assert (Hdf : Forall dotfree (map spell ps)).
  { apply Forall_forall. intros x Hx. apply in_map_iff in Hx. destruct Hx as (p & <- & Hp).
    rewrite Forall_forall in Hok. apply spell_dotfree. apply Hok. exact Hp. }
  assert (Hlast : forall r, rev (map spell ps) <> [] :: r) by (intros r; apply rev_spell_head; exact Hok).
  destruct (split_join _ Hn Hdf) as [S1 S2].
  assert (Hparts : parse_ipv4addr (spell_addr ps dot) =
    let parts := map spell ps in
    if (4 <? N.of_nat (length parts)) then XErr InvalidIpv4Address
    else match ipv4_numbers parts with
    | None => XErr InvalidIpv4Address
    | Some numbers =>
        match rev numbers with
        | [] => XPanic 314
        | ipv4 :: rnumbers =>
            let numbers := rev rnumbers in
            if N.shiftr U32_MAX (8 * N.of_nat (length numbers)) <? ipv4 then XErr InvalidIpv4Address
            else if existsb (fun x => 255 <? x) numbers then XErr InvalidIpv4Address
            else ipv4_add_parts numbers 0 ipv4
        end
    end).
  { unfold parse_ipv4addr, spell_addr. destruct dot.
    - rewrite S2. rewrite rev_app_distr. cbn [rev app]. rewrite rev_involutive. reflexivity.
    - rewrite app_nil_r. rewrite S1.
      destruct (rev (map spell ps)) as [|[|c x] r] eqn:E; try reflexivity. exfalso. exact (Hlast r eq_refl). }
  rewrite Hparts. cbv zeta.
  assert (Hu : Forall (fun p => pvalue p <= U32_MAX) ps).
  { unfold U32_MAX. destruct ps as [|p0 [|p1 [|p2 [|p3 [|p4 ps]]]]]; cbn [map in_range] in Hr; try contradiction;
      repeat constructor; lia. }
  rewrite ipv4_numbers_spell by assumption. rewrite !map_length.
  unfold U32_MAX.
  destruct ps as [|p0 [|p1 [|p2 [|p3 [|p4 ps]]]]]; cbn [map in_range] in Hr; try contradiction;
    cbn [map length rev app positional existsb ipv4_add_parts orb].
  - unfold U32_MAX. replace (4 <? N.of_nat 1) with false by reflexivity.
    replace (N.shiftr 4294967295 (8 * N.of_nat 0)) with 4294967295 by reflexivity.
    replace (4294967295 <? pvalue p0) with false by lia. reflexivity.
  - unfold U32_MAX. replace (4 <? N.of_nat 2) with false by reflexivity.
    replace (N.shiftr 4294967295 (8 * N.of_nat 1)) with 16777215 by reflexivity.
    replace (8 * (3 - 0)) with 24 by reflexivity. rewrite !N.shiftl_mul_pow2.
    replace (2 ^ 24) with 16777216 by reflexivity. rewrite !N.mod_small by lia.
    replace (16777215 <? pvalue p1) with false by lia.
    replace (255 <? pvalue p0) with false by lia. cbn [orb].
    replace (4294967295 <? pvalue p1 + (pvalue p0 * 16777216) ) with false by lia.
    f_equal. lia.
  - unfold U32_MAX. replace (4 <? N.of_nat 3) with false by reflexivity.
    replace (N.shiftr 4294967295 (8 * N.of_nat 2)) with 65535 by reflexivity.
    replace (8 * (3 - 0)) with 24 by reflexivity. replace (8 * (3 - (0 + 1))) with 16 by reflexivity.
    rewrite !N.shiftl_mul_pow2.
    replace (2 ^ 24) with 16777216 by reflexivity. replace (2 ^ 16) with 65536 by reflexivity. rewrite !N.mod_small by lia.
    replace (65535 <? pvalue p2) with false by lia.
    replace (255 <? pvalue p0) with false by lia. replace (255 <? pvalue p1) with false by lia. cbn [orb].
    replace (4294967295 <? pvalue p2 + (pvalue p0 * 16777216) ) with false by lia.
    replace (4294967295 <? pvalue p2 + (pvalue p0 * 16777216) + (pvalue p1 * 65536) ) with false by lia.
    f_equal. lia.
  - unfold U32_MAX. replace (4 <? N.of_nat 4) with false by reflexivity.
    replace (N.shiftr 4294967295 (8 * N.of_nat 3)) with 255 by reflexivity.
    replace (8 * (3 - 0)) with 24 by reflexivity. replace (8 * (3 - (0 + 1))) with 16 by reflexivity.
    replace (8 * (3 - (0 + 1 + 1))) with 8 by reflexivity.
    rewrite !N.shiftl_mul_pow2.
    replace (2 ^ 24) with 16777216 by reflexivity. replace (2 ^ 16) with 65536 by reflexivity. replace (2 ^ 8) with 256 by reflexivity. rewrite !N.mod_small by lia.
    replace (255 <? pvalue p3) with false by lia.
    replace (255 <? pvalue p0) with false by lia. replace (255 <? pvalue p1) with false by lia.
    replace (255 <? pvalue p2) with false by lia. cbn [orb].
    replace (4294967295 <? pvalue p3 + (pvalue p0 * 16777216) ) with false by lia.
    replace (4294967295 <? pvalue p3 + (pvalue p0 * 16777216) + (pvalue p1 * 65536) ) with false by lia.
    replace (4294967295 <? pvalue p3 + (pvalue p0 * 16777216) + (pvalue p1 * 65536) + (pvalue p2 * 256) ) with false by lia.
    f_equal. lia.
Qed.
