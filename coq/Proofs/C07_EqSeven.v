(* Proofs/C07_EqSeven.v - the C07 equivalence for seven of the ten setters - hostname, protocol, hash,
   search, username, password, port - assembled: one assignment preserves corrS (seven_step); parsing
   yields corrS on the parse classes of Proofs/C07_EqOpaqueClass.v, C07_EqPathClass.v,
   C07_EqAuthParse.v (parse_classes_corrS).  The host parsers of the two sides are arbitrary functions
   that agree (host_fns_ok of Proofs/C07_EqHostname.v); `safe_*` below are simple functions that do. *)
From RU Require Import Base.Prelude Base.Utf8 Model.AsciiSet Gen.Tables Model.PercentEncoding
  Model.HostT Model.UrlRecord Model.Parser Model.Setters Model.WF Model.KnownC01 Model.KnownC07 Spec.Whatwg
  Proofs.ListN Proofs.C03_WF Proofs.C06_Host Proofs.C01_EqRun Proofs.C01_EqClasses Proofs.C01_EqAuthModel Proofs.C01_EqClasses2
  Proofs.C07_Defs Proofs.C07_Histories Proofs.C07_Corr Proofs.C07_Small Proofs.C07_EqFive
  Proofs.C07_SpecProto Proofs.C07_EqSix Proofs.C07_EqPathClass Proofs.C07_EqAuthParse Proofs.C07_SpecHost Proofs.C07_EqHostname.

Definition seven (s : qsetter) : bool :=
  match s with QHostname | QProtocol | QHash | QSearch | QUsername | QPassword | QPort => true | _ => false end.

Fixpoint seven_ops (ops : list (qsetter * list N)) : Prop :=
  match ops with
  | [] => True
  | (s, v) :: r => seven s = true /\ usv_list v /\ seven_ops r
  end.

Section Seven.
Variable dbg : bool.
Variable hp ho : list N -> result host.
Variable hd : host -> list N.
Variable shp : bool -> list N -> option spec_host.
Variable shs : spec_host -> list N.
Hypothesis HF : host_fns_ok hp ho hd shp shs.

Notation corrS := (corrS dbg shs).

Theorem seven_step u su s v : corrS u su -> seven s = true -> usv_list v -> known_c07 u s v = 0 ->
  exists u' su', model_set dbg hp ho hd s u v = Some u' /\ spec_step shp s su v = Some su' /\ corrS u' su'.
Proof.
  intros C Hs Hv Hk. destruct (six s) eqn:H6; [exact (six_step dbg hp ho hd shp shs u su s v C H6 Hv Hk)|].
  destruct s; try discriminate Hs; try discriminate H6. cbn [model_set]. destruct C as [C S].
  destruct (hostname_stepS dbg hp ho hd shp shs u su v HF C S Hk) as (u' & su' & A & B & C' & S').
  exists u', su'. split; [exact A|]. split; [exact B|]. split; assumption.
Qed.

(* parsing yields corrS on the three proved no-base classes of non-special schemes: opaque path,
   "scheme:/path", "scheme://authority" *)
Definition in_corrS_class (input : list N) : Prop :=
  in_class_opaque input = true \/ in_class_pathonly input = true
  \/ (in_class_authority input = true /\ host_agree ho hd shp shs (class_host_text input)
      /\ host_extra ho hd shp (class_host_text input)).

Theorem parse_classes_corrS input u : usv_list input -> in_corrS_class input ->
  parse_url dbg hp ho hd None None input = POk u ->
  exists su, spec_basic_url_parse shp input None = BDone su /\ corrS u su.
Proof.
  intros Hu Hc Ep.
  destruct Hc as [Hc|[Hc|(Hc & HA & HX)]].
  - unfold in_class_opaque in Hc. rewrite C01_EqEnc.spec_clean_is_ntnl_trim in Hc.
    destruct (spec_scheme (C08_Input.ntnl (input_new_trim_c0 input))) as [[sch rest]|] eqn:Es; [|discriminate Hc].
    apply andb_true_iff in Hc. destruct Hc as [H1 H2].
    destruct (spec_scheme_model _ _ _ Es) as (rem & Hs & Hrem).
    assert (is_special_scheme sch = false) as Hns by (destruct (is_special_scheme sch); [discriminate | reflexivity]).
    assert (starts_with_cp 47 rest = false) as H47 by (destruct (starts_with_cp 47 rest); [discriminate | reflexivity]).
    rewrite <- Hrem in H47.
    destruct (opaque_class_corrS dbg hp ho hd shp shs input sch rem Hu Hs (not_special_type sch Hns)
                (split_of_starts_with_cp rem H47)) as (su & Esp & [E|(u0 & E & C)]).
    + rewrite Ep in E. discriminate E.
    + rewrite Ep in E. inversion E; subst u0. exists su. split; assumption.
  - destruct (pathonly_class_corrS dbg hp ho hd shp shs input Hu Hc) as (su & Esp & [E|(u0 & E & C)]).
    + rewrite Ep in E. discriminate E.
    + rewrite Ep in E. inversion E; subst u0. exists su. split; assumption.
  - pose proof (authority_class_corrS dbg hp ho hd None shp shs input Hu Hc HA HX) as K.
    destruct (spec_basic_url_parse shp input None) as [su|uf|]; [| |contradiction].
    + destruct K as [E|(u0 & E & C)]; [rewrite Ep in E; discriminate E|].
      rewrite Ep in E. inversion E; subst u0. exists su. split; [reflexivity | exact C].
    + destruct K as [e E]. rewrite Ep in E. discriminate E.
Qed.

End Seven.

(* host functions that meet host_fns_ok *)
Definition bad_head (s : list N) : bool := match s with c :: _ => (c =? 58) || (c =? 64) | [] => false end.
Definition safe_hp (s : list N) : result host :=
  match s with [] => Err EmptyHost | _ => if bad_head s then Err InvalidDomainCharacter else Ok (HDomain s) end.
Definition safe_ho (s : list N) : result host :=
  if bad_head s then Err InvalidDomainCharacter else Ok (HDomain s).
Definition safe_shp (o : bool) (s : list N) : option spec_host :=
  match s with
  | [] => if o then Some SEmpty else None
  | _ => if bad_head s then None else Some (if o then SOpaque s else SDomain s)
  end.

Theorem safe_host_fns_ok : host_fns_ok safe_hp safe_ho toy_hd safe_shp toy_shs.
Proof.
  split; intros [|c r]; unfold host_parsing, safe_hp, safe_ho, safe_shp; cbn [bad_head].
  - exact I.
  - destruct ((c =? 58) || (c =? 64)) eqn:E; [exact I|]. apply orb_false_iff in E. destruct E as [E1 E2].
    split; [reflexivity|]. split.
    + unfold host_disp_ok. cbn [hi_of_host toy_hd]. exists c, r. split; [reflexivity | lia].
    + split; split; intros H; discriminate H.
  - split; [reflexivity|]. split; [reflexivity|]. split; split; reflexivity.
  - destruct ((c =? 58) || (c =? 64)) eqn:E; [exact I|]. apply orb_false_iff in E. destruct E as [E1 E2].
    split; [reflexivity|]. split.
    + unfold host_disp_ok. cbn [hi_of_host toy_hd]. exists c, r. split; [reflexivity | lia].
    + split; split; intros H; discriminate H.
Qed.

(* the start URLs of the small scope, parsed with the safe host functions *)
Definition safe_parse (s : list N) : option url :=
  match parse_url true safe_hp safe_ho toy_hd None None s with POk u => Some u | _ => None end.
Definition safe_sparse (s : list N) : option spec_url :=
  match spec_basic_url_parse safe_shp s None with BDone u => Some u | _ => None end.

Definition start_corrS_safe_b (st : list N) : bool :=
  match safe_parse st, safe_sparse st with
  | Some u, Some su => corr_b true toy_shs u su && sane_b su
  | _, _ => false
  end.

Lemma starts_corrS_safe_computed : forallb start_corrS_safe_b (small_starts ++ proto_starts) = true.
Proof. vm_compute. reflexivity. Qed.

