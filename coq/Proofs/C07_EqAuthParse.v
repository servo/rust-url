(* Proofs/C07_EqAuthParse.v - the second clause of C07_statement ("parsing yields related records") for
   the authority class of the C01 equivalence: no base, non-special scheme,
   "scheme://[userinfo@]host[:port][/path][?q][#f]" (in_class_authority of Proofs/C01_EqClasses2.v).
   model_auth_cont_corr / model_auth_corr are model_auth_cont / model_auth of Proofs/C01_EqAuth.v with the
   canonical record exposed.  Where either parser fails the conclusion IS C01's model_auth_cont; where both
   succeed the model side is C01_EqAuth.ads_oob and the relation is corrS_auth of Proofs/C07_EqAuthClass.v
   (in the place of C01's related_auth), under two more facts about the host functions on
   the ONE string they are applied to: the model's host is the empty domain exactly when the Standard's
   is the empty host, and the host text does not start with '@'. *)
From RU Require Import Base.Prelude Base.Utf8 Base.Utf8Facts Model.AsciiSet Gen.Tables
  Model.PercentEncoding Model.HostT Model.UrlRecord Model.Parser Model.Setters Model.WF Model.KnownC01 Model.KnownC07 Spec.Whatwg
  Proofs.ListN Proofs.C14_Set Proofs.C14_Enc Proofs.C14_Views Proofs.C02_Enc Proofs.C02_Parts
  Proofs.C02_Opaque Proofs.C02_Path Proofs.C02_PathL1 Proofs.C03_WF Proofs.C01_Tables Proofs.C08_Input
  Proofs.C01_EqRun Proofs.C01_EqEnc Proofs.C01_EqApi Proofs.C01_EqOpaque Proofs.C01_EqDots Proofs.C01_EqPathSpec
  Proofs.C06_List Proofs.C06_Steps Proofs.C01_EqRef Proofs.C01_EqPath Proofs.C01_EqOverflow Proofs.C01_EqEmpty
  Proofs.C01_EqClasses Proofs.C01_EqAuthSpec Proofs.C01_EqAuthModel Proofs.C01_EqAuth Proofs.C01_EqClasses2
  Proofs.C07_Defs Proofs.C07_Corr Proofs.C07_EqFive Proofs.C07_SpecProto Proofs.C07_EqSix Proofs.C07_EqAuthClass.

Lemma usv_ntnl l : usv_list l -> usv_list (ntnl l).
Proof.
  unfold usv_list, ntnl. intros H. apply Forall_forall. intros x Hx. apply filter_In in Hx.
  exact (proj1 (Forall_forall _ _) H x (proj1 Hx)).
Qed.

Lemma usv_a_part t : usv_list t -> usv_list (a_part t).
Proof.
  induction t as [|c r IH]; intros H; [constructor|]. cbn [a_part]. apply usv_cons in H.
  destruct (is_ae c); [constructor|]. apply usv_cons. split; [tauto | apply IH; tauto].
Qed.

Lemma usv_cr_user w : usv_list w -> usv_list (cr_user w).
Proof.
  induction w as [|c r IH]; intros H; [constructor|]. cbn [cr_user]. apply usv_cons in H.
  destruct (c =? 58); [constructor|]. apply usv_cons. split; [tauto | apply IH; tauto].
Qed.

Section AuthParse.
Variable dbg : bool.
Variable hp hpo : list N -> result host.
Variable hd : host -> list N.
Variable ovr : option (list N -> list N).
Variable shp : bool -> list N -> option spec_host.
Variable shs : spec_host -> list N.

(* beyond host_agree: the empty host on both sides or on neither; no '@' at the start of the host text *)
Definition host_extra (s : list N) : Prop :=
  match hpo s, host_parsing shp true s with
  | Ok h, Some sh => (h = HDomain [] <-> sh = SEmpty) /\ starts_with_cp 64 (hd h) = false
  | _, _ => True
  end.

(* everything after parse_userinfo *)
Theorem model_auth_cont_corr sch l un pw rem HR :
  usv_list l -> scheme_canon sch = true -> scheme_type_of sch = STNotSpecial ->
  let ser0 := auth_s0 sch in
  let u1 := mkSUrl sch un pw None None (SPList []) None None in
  (forall P : Prop, (U32_MAX_P < nlen (ser0 ++ cred_text un pw) -> P) ->
     oob P (parse_userinfo STNotSpecial ser0 l) (ser0 ++ cred_text un pw, nlen ser0 + nlen un, rem)) ->
  ntnl rem = HR -> usv_list rem ->
  host_agree hpo hd shp shs (hs_host false HR) -> host_extra (hs_host false HR) ->
  clean T_USERINFO un = true ->
  match port_split (hs_rest false HR) with
  | Some PR => ((decimal_value (digits_of PR) <=? 65535) && starts_with_cp 92 (after_digits PR)) = false
  | None => True
  end ->
  (match (match port_split (hs_rest false HR) with Some PR => after_digits PR | None => hs_rest false HR end) with
   | c :: r => if c =? 47 then spath_ok r [] [] = true else True
   | [] => True
   end) ->
  if negb (is_nil (cred_text un pw)) && starts_ae HR
  then mfail (after_double_slash dbg hp hpo hd ovr CUrlParser STNotSpecial (nlen sch) (sch ++ [58]) l)
  else match sauth_host shp u1 HR with
       | None => mfail (after_double_slash dbg hp hpo hd ovr CUrlParser STNotSpecial (nlen sch) (sch ++ [58]) l)
       | Some su =>
           exists u, oob (U32_MAX_P < nlen (ser u))
                         (after_double_slash dbg hp hpo hd ovr CUrlParser STNotSpecial (nlen sch) (sch ++ [58]) l) u
                     /\ corrS dbg shs u su
       end.
Proof.
  intros Hu Hcan Hns ser0 u1 HPU Hrem Hurem HA HX Hclean Hbs Hok.
  (* where the parsers fail, this is C01's theorem *)
  pose proof (model_auth_cont dbg hp hpo hd ovr shp shs sch l un pw rem HR Hu Hcan Hns HPU Hrem Hurem HA Hbs Hok) as M.
  cbv zeta in M. fold ser0 u1 in M.
  destruct (negb (is_nil (cred_text un pw)) && starts_ae HR) eqn:Ecase; [exact M|].
  destruct (sauth_host shp u1 HR) as [su|] eqn:Esu; [clear M | exact M].
  (* where they succeed: the same steps, keeping the canonical record *)
  assert (exists tl, ser0 ++ cred_text un pw = sch ++ tl) as Htl.
  { exists ([58] ++ [47; 47] ++ cred_text un pw). unfold ser0, auth_s0. rewrite <- !app_assoc. reflexivity. }
  pose proof (hp_spec hp hpo hd shp shs sch (ser0 ++ cred_text un pw) rem u1 Hurem Hns Htl eq_refl) as HP.
  cbv zeta in HP. rewrite Hrem in HP. specialize (HP HA Hbs). rewrite Esu in HP.
  assert (negb (nlen ser0 =? nlen (ser0 ++ cred_text un pw)) = negb (is_nil (cred_text un pw))) as Eha.
  { rewrite nlen_app. destruct (cred_text un pw) as [|a b]; cbn [is_nil].
    - rewrite nlen_nil, N.add_0_r, N.eqb_refl. reflexivity.
    - replace (nlen ser0 =? nlen ser0 + nlen (a :: b)) with false by (rewrite nlen_cons; lia). reflexivity. }
  destruct HP as (host & sh & port & rem' & Ehpo & Eshp & Hhp & Hpo & Hrem' & Hurem' & HXae & Esu' & HO).
  unfold host_agree in HA. rewrite Ehpo, Eshp in HA. destruct HA as (Htxt & Hcol & Hemp & Hemp2).
  unfold host_extra in HX. rewrite Ehpo, Eshp in HX. destruct HX as (Hse & Hat).
  set (X := match port_split (hs_rest false HR) with Some PR => after_digits PR | None => hs_rest false HR end) in *.
  rewrite <- Hrem' in Hok, HXae.
  destruct (path_start_spec dbg rem' (((ser0 ++ cred_text un pw) ++ hd host) ++ port_suffix port) true Hurem' HXae Hok)
    as (segs & rest & Eps & Hurest & Hpt & Hnsl & Htail & Hresth).
  set (q := pqf_q STNotSpecial rest). set (f := pqf_f rest).
  exists (auth_url sch un pw (hd host) (hi_of_host host) port (flat_map (fun s => 47 :: s) segs) q f).
  (* the host check of after_double_slash passes *)
  assert (hi_eqb (hi_of_host host) HI_None && negb (nlen ser0 =? nlen (ser0 ++ cred_text un pw)) = false) as Echk.
  { rewrite Eha. destruct (is_nil (cred_text un pw)) eqn:Ec; cbn [negb]; [apply andb_false_r|].
    cbn [negb andb] in Ecase.
    assert (host <> HDomain []) as Hne.
    { intros Hh. apply Hemp in Hh. unfold sauth_host in Esu. rewrite Hh in Esu.
      destruct (port_split (hs_rest false HR)) eqn:Eps2; [discriminate Esu|].
      rewrite (hs_host_empty HR Hh Eps2) in Ecase. discriminate Ecase. }
    destruct (hi_of_host host) eqn:Ehi; try reflexivity. exfalso. apply Hne. apply hi_none_iff. exact Ehi. }
  split.
  - (* the model: the canonical record, or Overflow with a serialization beyond u32 *)
    apply (ads_oob dbg hp hpo hd ovr shp STNotSpecial sch l un pw rem host port rem' segs rest HPU HO Echk Eps Hurest Hresth).
    apply query_enc_nonspecial. exact Hns.
  - (* related to the Standard's record *)
    assert (su = spec_auth_url sch un pw sh port segs q f) as ->.
    { rewrite Esu'. rewrite <- Hrem'. rewrite Htail; [reflexivity | reflexivity | | reflexivity | reflexivity].
      unfold is_special. cbn [su_scheme set_port set_host u1]. rewrite <- special_schemes_are_the_standards, Hns. reflexivity. }
    apply corrS_auth.
    + constructor.
      * exact Hcan.
      * exact Hns.
      * exact Htxt.
      * exact Hcol.
      * intros Hh. apply Hemp2. apply Hemp. apply hi_none_iff. exact Hh.
      * intros Hh. apply Hhp. apply Hemp2. exact Hh.
      * exact Hpo.
      * exact Hpt.
      * apply pqf_q_clean. exact Hurest.
    + rewrite hi_none_iff. exact Hse.
    + intros Hh. apply hi_none_iff. apply Hemp. apply Hemp2. exact Hh.
    + exact Hat.
    + exact Hclean.
    + intros Hh. rewrite Hh in Echk. cbn [hi_eqb andb] in Echk. rewrite Eha in Echk.
      apply negb_false_iff in Echk. rewrite cred_text_nil in Echk. apply andb_true_iff in Echk.
      destruct Echk as [E1 E2]. destruct un; [|discriminate E1]. destruct pw; [|discriminate E2]. split; reflexivity.
Qed.

(* the text l after "scheme://" *)
Theorem model_auth_corr sch l : usv_list l -> scheme_canon sch = true -> scheme_type_of sch = STNotSpecial ->
  let T := ntnl l in
  list_eqb (a_part T) [58; 64] = false -> auth_port_bslash T = false ->
  (match auth_path_text T with c :: r => if c =? 47 then spath_ok r [] [] = true else True | [] => True end) ->
  host_agree hpo hd shp shs (auth_host_text T) -> host_extra (auth_host_text T) ->
  match sauth shp sch T with
  | None => mfail (after_double_slash dbg hp hpo hd ovr CUrlParser STNotSpecial (nlen sch) (sch ++ [58]) l)
  | Some su =>
      exists u, oob (U32_MAX_P < nlen (ser u))
                    (after_double_slash dbg hp hpo hd ovr CUrlParser STNotSpecial (nlen sch) (sch ++ [58]) l) u
                /\ corrS dbg shs u su
  end.
Proof.
  intros Hu Hcan Hns T Ha Hb Hc HA HX. unfold auth_port_bslash, auth_path_text, auth_host_text in *.
  unfold sauth. pose proof (parse_userinfo_spec (auth_s0 sch) l Hu) as PU. fold T in PU.
  pose proof (a_part_no_ae T) as Hnae.
  unfold after_at in *. destruct (last_at (a_part T)) as [[w h]|] eqn:Ela; cbn [fst snd] in *.
  - set (HR := h ++ a_rest T) in *.
    assert (match port_split (hs_rest false HR) with
            | Some PR => ((decimal_value (digits_of PR) <=? 65535) && starts_with_cp 92 (after_digits PR)) = false
            | None => True end) as Hbs by (destruct (port_split (hs_rest false HR)); [exact Hb | exact I]).
    cbn [opt_is_some andb].
    destruct (is_nil w && starts_ae HR) eqn:E1.
    + apply andb_true_iff in E1. destruct E1 as [_ E2]. rewrite E2.
      unfold after_double_slash. change ((sch ++ [58]) ++ [47; 47]) with (auth_s0 sch). rewrite PU. exists EmptyHost. reflexivity.
    + destruct PU as (rem & Hrem & Hurem & HPU).
      set (un := encU (cr_user w)) in *. set (pw := encU (cr_pass w)) in *.
      assert (clean T_USERINFO un = true) as Hclean.
      { unfold un, encU. apply encode_is_clean; [exact stable_USERINFO | apply utf8_encode_bytes].
        apply usv_cr_user. pose proof (last_at_split _ _ _ Ela) as Esp.
        pose proof (usv_a_part T (usv_ntnl l Hu)) as Hua. rewrite Esp in Hua. apply usv_app in Hua. tauto. }
      pose proof (model_auth_cont_corr sch l un pw rem HR Hu Hcan Hns HPU Hrem Hurem HA HX Hclean Hbs Hc) as C. cbv zeta in C.
      assert (cred_of (Some w) (set_scheme empty_url sch) = mkSUrl sch un pw None None (SPList []) None None) as ->.
      { cbn [cred_of]. rewrite ac_false. unfold un, pw. rewrite !encU_upe. reflexivity. }
      destruct (starts_ae HR) eqn:Eae.
      * rewrite andb_true_r in E1, C.
        assert (negb (is_nil (cred_text un pw)) = true) as Ene.
        { rewrite cred_text_nil. unfold un, pw. rewrite !encU_nil_iff.
          destruct (is_nil (cr_user w)) eqn:EU; [|reflexivity]. destruct (is_nil (cr_pass w)) eqn:EP; [|reflexivity].
          exfalso. destruct (cr_user w) eqn:EU'; [|discriminate EU]. destruct (cr_pass w) eqn:EP'; [|discriminate EP].
          pose proof (cred_nil_colon w E1 EU' EP') as Ew.
          pose proof (last_at_split _ _ _ Ela) as Esp.
          assert (forallb (fun c => negb (is_ae c)) h = true) as Hh.
          { rewrite Esp in Hnae. rewrite forallb_app in Hnae. apply andb_true_iff in Hnae. destruct Hnae as [_ Hn].
            cbn [forallb] in Hn. apply andb_true_iff in Hn. tauto. }
          unfold HR in Eae. rewrite (starts_ae_app h (a_rest T) Hh (a_rest_starts T)) in Eae.
          destruct h; [|discriminate Eae]. rewrite Esp, Ew in Ha. discriminate Ha. }
        rewrite Ene in C. exact C.
      * rewrite andb_false_r in C. exact C.
  - cbn [opt_is_some andb cred_of].
    assert (match port_split (hs_rest false T) with
            | Some PR => ((decimal_value (digits_of PR) <=? 65535) && starts_with_cp 92 (after_digits PR)) = false
            | None => True end) as Hbs by (destruct (port_split (hs_rest false T)); [exact Hb | exact I]).
    assert (forall P : Prop, (U32_MAX_P < nlen (auth_s0 sch ++ cred_text [] []) -> P) ->
              oob P (parse_userinfo STNotSpecial (auth_s0 sch) l) (auth_s0 sch ++ cred_text [] [], nlen (auth_s0 sch) + nlen [], l)) as HPU.
    { intros P HP. cbn [cred_text is_nil andb] in *. rewrite app_nil_r in *. rewrite nlen_nil, N.add_0_r. apply PU. exact HP. }
    pose proof (model_auth_cont_corr sch l [] [] l T Hu Hcan Hns HPU eq_refl Hu HA HX eq_refl Hbs Hc) as C. cbv zeta in C.
    cbn [cred_text is_nil andb negb] in C. exact C.
Qed.


(* parsing an input of the authority class yields records related by corrS - or the model reports
   Overflow (serialization longer than u32::MAX), or both sides fail *)
Theorem authority_class_corrS input : usv_list input -> in_class_authority input = true ->
  host_agree hpo hd shp shs (class_host_text input) -> host_extra (class_host_text input) ->
  match spec_basic_url_parse shp input None with
  | BDone su => parse_url dbg hp hpo hd ovr None input = PErr Overflow
                \/ exists u, parse_url dbg hp hpo hd ovr None input = POk u /\ corrS dbg shs u su
  | BFailure _ => exists e, parse_url dbg hp hpo hd ovr None input = PErr e
  | BOutOfFuel => False
  end.
Proof.
  intros Hu Hc HA HX. unfold in_class_authority, class_host_text in *.
  destruct (spec_scheme (spec_clean input)) as [[sch rest]|] eqn:Es; [|discriminate].
  destruct rest as [|c1 [|c2 T]]; try discriminate.
  apply andb_true_iff in Hc. destruct Hc as [Hc Hok]. apply andb_true_iff in Hc. destruct Hc as [Hc H2].
  apply andb_true_iff in Hc. destruct Hc as [H0 H1]. apply N.eqb_eq in H1, H2. subst c1 c2.
  assert (is_special_scheme sch = false) as Hnsp by (destruct (is_special_scheme sch); [discriminate | reflexivity]).
  pose proof (not_special_type sch Hnsp) as Hns.
  unfold auth_class_ok in Hok. apply andb_true_iff in Hok. destruct Hok as [Hok Hc3].
  apply andb_true_iff in Hok. destruct Hok as [Hc1 Hc2]. apply negb_true_iff in Hc1, Hc2.
  pose proof (spec_authority shp input sch T Es Hnsp) as HS.
  rewrite spec_clean_is_ntnl_trim in Es.
  destruct (spec_scheme_model _ _ _ Es) as (rem & Hps & Hrem).
  destruct (parse_scheme_suffix _ _ _ _ Hps) as [pre0 Hpre].
  assert (usv_list rem) as Hur.
  { pose proof (usv_trim input Hu) as Ht. rewrite Hpre in Ht. apply usv_app in Ht. tauto. }
  destruct (split_ss rem T Hur Hrem) as (l & Hss & Hl & Hul).
  pose proof (parse_scheme_out _ _ _ Hps) as Hcan.
  assert (match auth_path_text (ntnl l) with c :: r => if c =? 47 then spath_ok r [] [] = true else True | [] => True end) as Hc3'.
  { rewrite Hl. destruct (auth_path_text T) as [|c r]; [exact I|]. destruct (c =? 47); [exact Hc3 | exact I]. }
  rewrite <- Hl in Hc1, Hc2, HA, HX.
  pose proof (model_auth_corr sch l Hul Hcan Hns Hc1 Hc2 Hc3' HA HX) as HM. cbv zeta in HM.
  rewrite Hl in HM.
  assert (parse_url dbg hp hpo hd ovr None input
          = (' se <~ to_u32 (nlen sch) ;; after_double_slash dbg hp hpo hd ovr CUrlParser STNotSpecial se (sch ++ [58]) l)) as Epu.
  { unfold parse_url. rewrite Hps. unfold parse_with_scheme. rewrite Hns. unfold parse_non_special. rewrite Hss. reflexivity. }
  rewrite Epu.
  destruct (sauth shp sch T) as [su|].
  - rewrite HS. destruct HM as (u & HO & R).
    assert (oob True
                (' se <~ to_u32 (nlen sch) ;; after_double_slash dbg hp hpo hd ovr CUrlParser STNotSpecial se (sch ++ [58]) l) u) as HO'.
    { eapply oob_bind; [apply oob_u32; intros _; exact I|]. eapply oob_weaken; [|exact HO]. intros _. exact I. }
    destruct HO' as [[E _]|E]; [left; exact E | right; exists u; split; assumption].
  - destruct HS as [uf ->].
    destruct (to_u32 (nlen sch)) as [se| |] eqn:Eu; cbn [pbind].
    + apply to_u32_inv in Eu. destruct Eu as [-> _]. exact HM.
    + exists e. reflexivity.
    + unfold to_u32 in Eu. destruct (nlen sch <=? U32_MAX_P); discriminate Eu.
Qed.

End AuthParse.

