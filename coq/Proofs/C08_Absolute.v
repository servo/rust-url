(* Proofs/C08_Absolute.v - an absolute URL's own serialization resolves to itself against any base:
   the base is never consulted when the text starts with a non-special scheme, with a special scheme
   followed by two slashes, or with "file:" followed by two slashes (abs_shape) - so the law is C02's
   re-parse theorem (L3) for every class where that one is available. *)
From RU Require Import Base.Prelude Base.Utf8 Base.Utf8Facts Model.AsciiSet Gen.Tables Model.PercentEncoding
  Model.HostT Model.UrlRecord Model.Parser Model.Setters Model.WF Model.KnownC08
  Proofs.ListN Proofs.C14_Enc Proofs.C02_Enc Proofs.C02_Parts Proofs.C02_Opaque Proofs.C02_Path Proofs.C02_PathL1
  Proofs.C02_Reach Proofs.C08_Input.

Definition file_two_slashes (rem : list N) : bool :=
  match inp_split_first rem with
  | (Some c, r1) =>
      is_slash_or_bslash c
      && match inp_split_first r1 with (Some d, _) => is_slash_or_bslash d | (None, _) => false end
  | (None, _) => false
  end.

(* decided on the text alone *)
Definition abs_shape (txt : list N) : bool :=
  match parse_scheme CUrlParser (input_new_trim_c0 txt) with
  | Some (sch, rem) =>
      match scheme_type_of sch with
      | STNotSpecial => true
      | STSpecialNotFile => 2 <=? fst (inp_count_matching is_slash_or_bslash rem)
      | STFile => file_two_slashes rem
      end
  | None => false
  end.

(* canonical text "scheme://..." of any scheme type has the shape *)
Lemma count_two_slashes rest : 2 <= fst (inp_count_matching is_slash_or_bslash (47 :: 47 :: rest)).
Proof.
  rewrite inp_count_matching_fst. rewrite !ntnl_cons by reflexivity. cbn [count_leading].
  change (is_slash_or_bslash 47) with true. cbn iota. lia.
Qed.

Theorem abs_shape_nonspecial sch rest : scheme_canon sch = true -> scheme_type_of sch = STNotSpecial ->
  edge_ok (sch ++ 58 :: rest) -> abs_shape (sch ++ 58 :: rest) = true.
Proof.
  intros Hs Hn He. unfold abs_shape. rewrite trim_c0_id by exact He. rewrite parse_scheme_canon by exact Hs.
  rewrite Hn. reflexivity.
Qed.

Section Absolute.
Variables (dbg : bool) (hp hpo : list N -> result host) (hd : host -> list N) (ovr : option (list N -> list N)).

Theorem abs_dispatch b txt : abs_shape txt = true ->
  parse_url dbg hp hpo hd ovr (Some b) txt = parse_url dbg hp hpo hd ovr None txt.
Proof.
  unfold abs_shape, parse_url.
  destruct (parse_scheme CUrlParser (input_new_trim_c0 txt)) as [[sch rem]|]; [|discriminate].
  unfold parse_with_scheme. destruct (to_u32 (nlen sch)) as [se| |]; cbn [pbind]; try reflexivity.
  destruct (scheme_type_of sch) eqn:Est; intros H.
  - (* file: the file host state does not look at the base *)
    unfold file_two_slashes in H. unfold parse_file.
    destruct (inp_split_first rem) as [[c|] r1]; [|discriminate].
    apply andb_true_iff in H. destruct H as [H1 H2]. rewrite H1.
    destruct (inp_split_first r1) as [[d|] r2]; [|discriminate]. rewrite H2. reflexivity.
  - (* special: two slashes, the same-scheme shortcut does not fire *)
    destruct (inp_count_matching is_slash_or_bslash rem) as [sl rem']. cbn [fst] in H.
    replace (sl <? 2) with false by lia. reflexivity.
  - reflexivity.
Qed.

(* the two classes of C02 *)
Theorem absolute_opaque b sch P q f : opaque_ok sch P q f ->
  parse_url dbg hp hpo hd ovr (Some b) (opaque_ser sch P q f) = POk (opaque_url sch P q f).
Proof.
  intros K. rewrite abs_dispatch; [apply reparse_opaque_form; exact K|].
  pose proof (opaque_ser_edge_ok hp hpo _ _ _ _ K) as He. destruct K.
  unfold opaque_ser, opaque_pre in *. rewrite <- !app_assoc in *. cbn [app] in *.
  apply abs_shape_nonspecial; assumption.
Qed.

Theorem absolute_noauth b sch segs last q f : noauth_ok sch segs last q f ->
  parse_url dbg hp hpo hd ovr (Some b) (noauth_ser sch (path_text segs last) q f)
  = POk (noauth_url sch (path_text segs last) q f).
Proof.
  intros K. rewrite abs_dispatch; [apply reparse_noauth_form; exact K|].
  destruct K. set (T := path_text segs last) in *.
  pose proof nk_sch as Hsc. unfold scheme_canon in Hsc. apply andb_true_iff in Hsc. destruct Hsc as [_ Hall].
  set (body := segs_text segs ++ last).
  assert (forallb above_space body = true) as Hbody.
  { unfold body. rewrite forallb_app, (segs_text_above segs nk_segs), (good_seg_above last nk_last). reflexivity. }
  assert (T = 47 :: body) as ET by reflexivity.
  assert (forallb above_space (marker_of T ++ T ++ qf_text q f) = true) as Hrest.
  { rewrite !forallb_app. rewrite (qf_text_above q f nk_q nk_f). rewrite ET. cbn [forallb]. rewrite Hbody.
    unfold marker_of. destruct (starts_with s_ss (47 :: body)); reflexivity. }
  assert (edge_ok (noauth_ser sch T q f)) as He.
  { apply all_above_edge. unfold noauth_ser, noauth_pre. rewrite <- !app_assoc. rewrite forallb_app.
    rewrite (scheme_above hp hpo sch Hall). cbn [andb]. cbn [app forallb]. exact Hrest. }
  unfold noauth_ser, noauth_pre in *. rewrite <- !app_assoc in *. cbn [app] in *.
  apply abs_shape_nonspecial; assumption.
Qed.

End Absolute.

(* the law for every fixpoint of re-parsing whose text has the shape *)
Theorem absolute_of_reparse dbg hp hpo hd b u : Fixpoint_of_reparse dbg hp hpo hd u -> abs_shape (utf8_lossy (ser u)) = true ->
  parse_url dbg hp hpo hd None (Some b) (utf8_lossy (ser u)) = POk u.
Proof. intros H S. unfold Fixpoint_of_reparse, reparse in H. rewrite (abs_dispatch dbg hp hpo hd None) by exact S. exact H. Qed.


(* the shape without the edge premise: trimming cannot reach "scheme://" *)
Lemma drop_while_app_stop f a c b : f c = false -> drop_while f (a ++ c :: b) = drop_while f a ++ c :: b.
Proof.
  intros Hc. induction a as [|x a IH]; cbn [app drop_while].
  - rewrite Hc. reflexivity.
  - destruct (f x); [exact IH | reflexivity].
Qed.

Lemma trim_c0_keeps_front X rest :
  match X with [] => True | c :: _ => is_c0_or_space c = false end ->
  exists rest', input_new_trim_c0 (X ++ 47 :: rest) = X ++ 47 :: rest'.
Proof.
  intros HX. unfold input_new_trim_c0, trim_matches.
  rewrite (drop_while_first_ok _ (X ++ 47 :: rest)) by (destruct X; [reflexivity | exact HX]).
  rewrite rev_app_distr. cbn [rev]. rewrite <- app_assoc. cbn [app].
  rewrite drop_while_app_stop by reflexivity.
  exists (rev (drop_while is_c0_or_space (rev rest))).
  rewrite rev_app_distr. cbn [rev]. rewrite rev_involutive, <- app_assoc. reflexivity.
Qed.

Theorem abs_shape_slashes_any sch rest : scheme_canon sch = true ->
  abs_shape (sch ++ 58 :: 47 :: 47 :: rest) = true.
Proof.
  intros Hs. unfold abs_shape.
  assert (match sch ++ [58; 47] with [] => True | c :: _ => is_c0_or_space c = false end) as HX.
  { unfold scheme_canon in Hs. apply andb_true_iff in Hs. destruct Hs as [Hh _].
    destruct sch as [|c s]; [discriminate|]. cbn [app]. unfold is_lower, is_c0_or_space in *. lia. }
  destruct (trim_c0_keeps_front (sch ++ [58; 47]) rest HX) as [rest' E].
  rewrite <- !app_assoc in E. cbn [app] in E. rewrite E.
  rewrite parse_scheme_canon by exact Hs.
  destruct (scheme_type_of sch).
  - reflexivity.
  - pose proof (count_two_slashes rest'). lia.
  - reflexivity.
Qed.

(* the absolute law for every fixpoint of re-parsing whose text is  scheme "://" anything:
   C02's L3 for URLs with authority is ALL that is needed for them *)
Theorem absolute_of_reparse_auth dbg hp hpo hd b u sch rest :
  Fixpoint_of_reparse dbg hp hpo hd u -> utf8_lossy (ser u) = sch ++ 58 :: 47 :: 47 :: rest -> scheme_canon sch = true ->
  parse_url dbg hp hpo hd None (Some b) (utf8_lossy (ser u)) = POk u.
Proof.
  intros H E Hs. apply absolute_of_reparse; [exact H|]. rewrite E. apply abs_shape_slashes_any. exact Hs.
Qed.
