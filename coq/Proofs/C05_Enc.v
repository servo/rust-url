(* Proofs/C05_Enc.v - the alphabet of percent-encoder output.
   The facts are proved for the iterator `pe_display S xs` and ARBITRARY lists of numbers (no range
   condition: a value >= 128 is always sent to the table, and every table slice is made of '%' and
   upper-case hex digits - so nothing above 0x7E can come out whatever goes in); the reference map
   `encode S bs` (C14) agrees with the iterator on byte lists and inherits them.
   Then the membership facts about the regenerated sets of url/src/parser.rs. *)
From RU Require Import Base.Prelude Base.Utf8 Base.Utf8Facts Model.AsciiSet Gen.Tables
  Model.PercentEncoding Proofs.C14_Set Proofs.C14_Enc Proofs.C14_Views.

Definition ok_byte (b : N) : Prop := 33 <= b /\ b <= 126.
Definition ok_or_space (b : N) : Prop := 32 <= b /\ b <= 126.

Lemma ok_byte_or_space b : ok_byte b -> ok_or_space b.
Proof. unfold ok_byte, ok_or_space. lia. Qed.
Lemma ok_or_space_32 : ok_or_space 32.
Proof. unfold ok_or_space. lia. Qed.
Lemma ok_or_space_iff b : ok_or_space b <-> ok_byte b \/ b = 32.
Proof. unfold ok_byte, ok_or_space. lia. Qed.

(* '0'-'9' 'A'-'F' *)
Definition is_hexu (c : N) : bool := is_digit c || ((65 <=? c) && (c <=? 70)).
Definition pct_or_hex (c : N) : Prop := c = 37 \/ is_hexu c = true.

Lemma pct_or_hex_ok c : pct_or_hex c -> ok_byte c.
Proof. unfold pct_or_hex, is_hexu, is_digit, ok_byte. lia. Qed.

Section Sub.
  Context {A : Type} (P : A -> Prop).
  Lemma Forall_firstn n : forall l, Forall P l -> Forall P (firstn n l).
  Proof.
    induction n as [|n IH]; intros l H; [constructor|].
    destruct l as [|x l]; [constructor|]. inversion H; subst. cbn [firstn]. constructor; auto.
  Qed.
  Lemma Forall_skipn n : forall l, Forall P l -> Forall P (skipn n l).
  Proof.
    induction n as [|n IH]; intros l H; [exact H|].
    destruct l as [|x l]; [constructor|]. inversion H; subst. cbn [skipn]. auto.
  Qed.
End Sub.

(* the iterator pe_display, any input *)
Lemma table_pct_hex : forallb (fun x => (x =? 37) || is_hexu x) T_ENC_TABLE = true.
Proof. vm_compute. reflexivity. Qed.

Lemma enc_byte_out b : Forall pct_or_hex (enc_byte b).
Proof.
  unfold enc_byte. apply Forall_firstn, Forall_skipn.
  pose proof table_pct_hex as T. rewrite forallb_forall in T. apply Forall_forall. intros x Hx.
  specialize (T x Hx). unfold pct_or_hex. apply orb_true_iff in T. destruct T as [T|T]; [left; lia | right; exact T].
Qed.

(* an output byte is an input byte that the set does not cover, or '%', or an upper-case hex digit *)
Definition out_ok (S : aset) (bs : list N) (c : N) : Prop :=
  (In c bs /\ should_encode S c = false) \/ pct_or_hex c.

Lemma out_ok_incl S a b c : incl a b -> out_ok S a c -> out_ok S b c.
Proof. intros Hi [[H1 H2]|H]; [left; split; [apply Hi; exact H1 | exact H2] | right; exact H]. Qed.

Lemma pe_next_out S bs c rest : pe_next S bs = Some (c, rest) ->
  Forall (out_ok S bs) c /\ incl rest bs /\ (length rest < length bs)%nat.
Proof.
  destruct bs as [|b r]; cbn [pe_next]; [discriminate|].
  destruct (should_encode S b) eqn:E.
  - intros H. inversion H; subst. split; [|split].
    + eapply Forall_impl; [|apply enc_byte_out]. intros x Hx. right. exact Hx.
    + apply incl_tl, incl_refl.
    + cbn [length]. lia.
  - destruct (span_keep S r) as [u rest'] eqn:Es. intros H. inversion H; subst.
    destruct (span_keep_spec _ _ _ _ Es) as (H1 & _ & H3 & H4 & _). split; [|split].
    + constructor; [left; split; [left; reflexivity | exact E]|].
      apply Forall_forall. intros x Hx. rewrite Forall_forall in H3. left. split; [|apply H3; exact Hx].
      right. rewrite H1. apply in_or_app. left. exact Hx.
    + rewrite H1. apply incl_tl, incl_appr, incl_refl.
    + cbn [length]. lia.
Qed.

Lemma chunks_f_out n : forall S bs, Forall (out_ok S bs) (concat (pe_chunks_f n S bs)).
Proof.
  induction n as [|n IH]; intros S bs; [constructor|].
  cbn [pe_chunks_f]. destruct (pe_next S bs) as [[c rest]|] eqn:En; [|constructor].
  destruct (pe_next_out _ _ _ _ En) as (H1 & H2 & _). cbn [concat]. apply Forall_app. split; [exact H1|].
  eapply Forall_impl; [|apply IH]. intros x. apply out_ok_incl. exact H2.
Qed.

(* no range condition on xs *)
Theorem pe_display_out S xs : Forall (out_ok S xs) (pe_display S xs).
Proof. unfold pe_display, pe_chunks. apply chunks_f_out. Qed.

(* what out_ok excludes: a member of the set other than '%' and the hex digits ... *)
Lemma out_ok_avoids S bs c :
  aset_contains S c = true -> c <> 37 -> is_hexu c = false -> ~ out_ok S bs c.
Proof.
  intros Hc H37 Hh [[_ Hs]|[->|Hx]]; [|congruence|congruence].
  unfold should_encode in Hs. destruct (128 <=? c); [discriminate|congruence].
Qed.

(* ... and, when the set covers everything below lo and 0x7F, every byte outside lo..0x7E *)
Definition covers_to (lo : N) (S : aset) : Prop := forall b, b < lo \/ b = 127 -> aset_contains S b = true.
Definition covers_ctl : aset -> Prop := covers_to 33.
Definition covers_c0 : aset -> Prop := covers_to 32.

Lemma out_ok_range lo S bs c : lo <= 33 -> covers_to lo S -> out_ok S bs c -> lo <= c /\ c <= 126.
Proof.
  intros Hlo Hcov [[_ Hs]|Hc]; [|apply pct_or_hex_ok in Hc; unfold ok_byte in Hc; lia].
  unfold should_encode in Hs. destruct (128 <=? c) eqn:E; [discriminate|].
  destruct (N.ltb_spec c lo) as [L|L]; [rewrite Hcov in Hs by (left; exact L); discriminate|].
  destruct (N.eq_dec c 127) as [->|Hne]; [rewrite Hcov in Hs by (right; reflexivity); discriminate|]. lia.
Qed.

Theorem pe_display_avoids S xs c :
  aset_contains S c = true -> c <> 37 -> is_hexu c = false -> ~ In c (pe_display S xs).
Proof.
  intros Hc H37 Hh Hin. pose proof (pe_display_out S xs) as F. rewrite Forall_forall in F.
  exact (out_ok_avoids S xs c Hc H37 Hh (F c Hin)).
Qed.

Theorem pe_display_ok S xs : covers_ctl S -> Forall ok_byte (pe_display S xs).
Proof.
  intros Hcov. eapply Forall_impl; [|apply (pe_display_out S xs)].
  intros c. exact (out_ok_range 33 S xs c (N.le_refl _) Hcov).
Qed.

Theorem pe_display_ok_space S xs : covers_c0 S -> Forall ok_or_space (pe_display S xs).
Proof.
  intros Hcov. eapply Forall_impl; [|apply (pe_display_out S xs)].
  intros c. exact (out_ok_range 32 S xs c ltac:(lia) Hcov).
Qed.

(* the reference map `encode` (C14): on byte lists it is the iterator *)
Theorem encode_avoids S bs c : bytes bs ->
  aset_contains S c = true -> c <> 37 -> is_hexu c = false -> ~ In c (encode S bs).
Proof. intros Hby. rewrite <- (pe_display_is_encode S bs Hby). apply pe_display_avoids. Qed.

Theorem encode_ok S bs : bytes bs -> covers_ctl S -> Forall ok_byte (encode S bs).
Proof. intros Hby. rewrite <- (pe_display_is_encode S bs Hby). apply pe_display_ok. Qed.

Theorem encode_ok_space S bs : bytes bs -> covers_c0 S -> Forall ok_or_space (encode S bs).
Proof. intros Hby. rewrite <- (pe_display_is_encode S bs Hby). apply pe_display_ok_space. Qed.

(* a set covers a list of bytes *)
Definition covers_list (S : aset) (l : list N) : bool := forallb (aset_contains S) l.
(* all of 0x00-0x20 and 0x7F *)
Definition covers_ctl_b (S : aset) : bool := all_below 33 (aset_contains S) && aset_contains S 127.

Lemma covers_to_spec lo S : all_below lo (aset_contains S) && aset_contains S 127 = true -> covers_to lo S.
Proof.
  intros H b Hb. apply andb_true_iff in H. destruct H as [H1 H2].
  destruct Hb as [Hb| ->]; [apply (all_below_spec lo _ H1 b Hb) | exact H2].
Qed.
Lemma covers_ctl_spec S : covers_ctl_b S = true -> covers_ctl S.
Proof. apply covers_to_spec. Qed.

(* the delimiter lists of the property text *)
Definition D_FRAGMENT : list N := [32; 34; 60; 62; 96].                              (* space dquote < > backtick *)
Definition D_PATH : list N := [63; 35; 32; 34; 60; 62; 96; 123; 125].                (* ? # space dquote < > backtick { } *)
Definition D_PATH_SEGMENT : list N := 47 :: D_PATH.                                  (* / and the above *)
Definition D_SPECIAL_PATH_SEGMENT : list N := 92 :: D_PATH_SEGMENT.                  (* \ and the above *)
Definition D_USERINFO : list N :=
  [47; 58; 59; 61; 64; 91; 92; 93; 94; 124] ++ D_PATH.                               (* / : ; = @ [ \ ] ^ | + path *)
Definition D_QUERY : list N := [35; 32; 34; 60; 62].                                 (* # space dquote < > *)
Definition D_SPECIAL_QUERY : list N := 39 :: D_QUERY.                                (* apostrophe and the above *)

Lemma T_CONTROLS_c0 : covers_c0 T_CONTROLS.
Proof. apply covers_to_spec. vm_compute. reflexivity. Qed.

Lemma T_FRAGMENT_facts : covers_ctl_b T_FRAGMENT = true /\ covers_list T_FRAGMENT D_FRAGMENT = true.
Proof. vm_compute. split; reflexivity. Qed.
Lemma T_PATH_facts : covers_ctl_b T_PATH = true /\ covers_list T_PATH D_PATH = true.
Proof. vm_compute. split; reflexivity. Qed.
Lemma T_PATH_SEGMENT_facts :
  covers_ctl_b T_PATH_SEGMENT = true /\ covers_list T_PATH_SEGMENT (37 :: D_PATH_SEGMENT) = true.
Proof. vm_compute. split; reflexivity. Qed.
Lemma T_SPECIAL_PATH_SEGMENT_facts :
  covers_ctl_b T_SPECIAL_PATH_SEGMENT = true /\ covers_list T_SPECIAL_PATH_SEGMENT (37 :: D_SPECIAL_PATH_SEGMENT) = true.
Proof. vm_compute. split; reflexivity. Qed.
Lemma T_USERINFO_facts : covers_ctl_b T_USERINFO = true /\ covers_list T_USERINFO D_USERINFO = true.
Proof. vm_compute. split; reflexivity. Qed.
Lemma T_QUERY_facts : covers_ctl_b T_QUERY = true /\ covers_list T_QUERY D_QUERY = true.
Proof. vm_compute. split; reflexivity. Qed.
Lemma T_SPECIAL_QUERY_facts : covers_ctl_b T_SPECIAL_QUERY = true /\ covers_list T_SPECIAL_QUERY D_SPECIAL_QUERY = true.
Proof. vm_compute. split; reflexivity. Qed.

Lemma T_FRAGMENT_ctl : covers_ctl T_FRAGMENT. Proof. apply covers_ctl_spec, T_FRAGMENT_facts. Qed.
Lemma T_PATH_ctl : covers_ctl T_PATH. Proof. apply covers_ctl_spec, T_PATH_facts. Qed.
Lemma T_PATH_SEGMENT_ctl : covers_ctl T_PATH_SEGMENT. Proof. apply covers_ctl_spec, T_PATH_SEGMENT_facts. Qed.
Lemma T_SPECIAL_PATH_SEGMENT_ctl : covers_ctl T_SPECIAL_PATH_SEGMENT.
Proof. apply covers_ctl_spec, T_SPECIAL_PATH_SEGMENT_facts. Qed.
Lemma T_USERINFO_ctl : covers_ctl T_USERINFO. Proof. apply covers_ctl_spec, T_USERINFO_facts. Qed.
Lemma T_QUERY_ctl : covers_ctl T_QUERY. Proof. apply covers_ctl_spec, T_QUERY_facts. Qed.
Lemma T_SPECIAL_QUERY_ctl : covers_ctl T_SPECIAL_QUERY. Proof. apply covers_ctl_spec, T_SPECIAL_QUERY_facts. Qed.

(* the component statement: what `ser ++ pe_display S xs` can add *)
(* output is in 0x21..0x7E and contains no byte of D; xs is ANY list of numbers *)
Definition comp_clean (D : list N) (out : list N) : Prop :=
  Forall ok_byte out /\ forall d, In d D -> ~ In d out.

Lemma comp_clean_nil D : comp_clean D [].
Proof. split; [constructor | intros d _ H; destruct H]. Qed.

Lemma comp_clean_app D a b : comp_clean D a -> comp_clean D b -> comp_clean D (a ++ b).
Proof.
  intros [A1 A2] [B1 B2]. split; [apply Forall_app; split; assumption|].
  intros d Hd Hin. apply in_app_or in Hin. destruct Hin as [H|H]; [exact (A2 d Hd H) | exact (B2 d Hd H)].
Qed.

Definition no_pct_hex_b (D : list N) : bool := forallb (fun d => negb ((d =? 37) || is_hexu d)) D.

Theorem pe_display_clean S D xs :
  covers_ctl_b S = true -> covers_list S D = true ->
  no_pct_hex_b D = true ->
  comp_clean D (pe_display S xs).
Proof.
  intros Hc Hl Hd. split; [apply pe_display_ok, covers_ctl_spec; exact Hc|].
  intros d Hin. unfold covers_list in Hl. unfold no_pct_hex_b in Hd. rewrite forallb_forall in Hl, Hd.
  specialize (Hl d Hin). specialize (Hd d Hin).
  apply negb_true_iff, orb_false_iff in Hd. destruct Hd as [Hd1 Hd2].
  apply pe_display_avoids; [exact Hl | lia | exact Hd2].
Qed.

(* the same for the C14 reference map on byte lists *)
Theorem encode_clean S D bs : bytes bs ->
  covers_ctl_b S = true -> covers_list S D = true ->
  no_pct_hex_b D = true ->
  comp_clean D (encode S bs).
Proof.
  intros Hby. rewrite <- (pe_display_is_encode S bs Hby). apply pe_display_clean.
Qed.

(* raw '%' in a PATH_SEGMENT output is always the start of an escape produced by the encoder:
   the set contains '%', so an input '%' is itself encoded (as %25) *)
Theorem pe_display_pct_escaped S xs :
  aset_contains S 37 = true ->
  Forall (fun c => (In c xs /\ should_encode S c = false /\ c <> 37) \/ pct_or_hex c) (pe_display S xs).
Proof.
  intros H37. eapply Forall_impl; [|apply (pe_display_out S xs)]. cbv beta.
  intros c [[Hi Hs]|Hc]; [left|right; exact Hc]. split; [exact Hi|]. split; [exact Hs|].
  intros ->. unfold should_encode in Hs. change (128 <=? 37) with false in Hs. congruence.
Qed.

(* for text: the bytes fed to the encoder are the UTF-8 bytes of the code points *)
Theorem push_text_is_encode S text : usv_list text ->
  pe_display S (utf8_encode text) = encode S (utf8_encode text).
Proof. intros H. apply pe_display_is_encode, utf8_encode_bytes. exact H. Qed.
