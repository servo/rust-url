(* Proofs/C06_Port.v - set_port_internal / set_port / q_set_port on a well-formed record. *)
From RU Require Import Base.Prelude Model.HostT Model.UrlRecord Model.Parser Model.Setters Model.WF
  Proofs.ListN Proofs.C03_WF Proofs.C06_List Proofs.C06_WFI Proofs.C06_Tail Proofs.C06_Suffix Proofs.C06_Front.

Definition port_text (p : option N) : list N := match p with Some x => 58 :: decimal x | None => [] end.

Definition with_port (u : url) (p : option N) : url :=
  let ps' := host_end u + nlen (port_text p) in
  mkUrl (nfirstn (host_end u) (ser u) ++ port_text p ++ nskipn (path_start u) (ser u))
        (scheme_end u) (username_end u) (host_start u) (host_end u) (hosti u) p ps'
        (option_map (shift (path_start u) ps') (query_start u))
        (option_map (shift (path_start u) ps') (fragment_start u)).

Lemma option_map_shift_ext b1 b2 b3 b4 (o : option N) :
  (forall i, o = Some i -> shift b1 b2 i = shift b3 b4 i) -> option_map (shift b1 b2) o = option_map (shift b3 b4) o.
Proof. intros H. destruct o as [i|]; [|reflexivity]. cbn. f_equal. apply H. reflexivity. Qed.

Lemma set_port_internal_eval dbg u p : wf_b u = true -> has_host u = true ->
  set_port_internal dbg u p = Some (if opt_eqb (port u) p then u else with_port u p).
Proof.
  intros W Hh. pose proof (has_host_authority u W Hh) as Ha. pose proof (wf_auth_facts u W Ha) as F.
  pose proof (af_ue F); pose proof (af_hs F); pose proof (af_he F); pose proof (af_ps F); pose proof (af_len F).
  destruct (wf_tail_offsets_ge u (path_start u) W ltac:(lia)) as [Gq Gf].
  unfold set_port_internal.
  destruct (port u) as [o|] eqn:Eo; destruct p as [n|]; cbn [opt_eqb].
  - destruct (o =? n) eqn:E; [reflexivity|].
    unfold u_slice_from. rewrite slice_from_o_some by lia. cbn [bindo].
    unfold truncate.
    assert (nlen (nfirstn (host_end u) (ser u) ++ [58] ++ decimal n) = host_end u + nlen (port_text (Some n))) as El.
    { rewrite nlen_app, nlen_nfirstn by lia. cbn [port_text app]. rewrite !nlen_cons. reflexivity. }
    rewrite El.
    rewrite !adjust_opt_ok by assumption. cbn [bindo]. unfold with_port. cbn [port_text].
    rewrite <- !app_assoc. reflexivity.
  - unfold u_slice_from. rewrite slice_o_some by lia. rewrite slice_from_o_some by lia. cbn [bindo].
    replace (host_end u <=? path_start u) with true by lia. cbn [assert_o bindo].
    unfold sub_off_opt. rewrite !adjust_opt_ok.
    + cbn [bindo]. unfold with_port. cbn [port_text app]. rewrite nlen_nil, N.add_0_r, N.sub_0_r, nskipn_0.
      f_equal. f_equal; apply option_map_shift_ext; intros i Hi; unfold shift;
        [rewrite Hi in Gq | rewrite Hi in Gf]; lia.
    + destruct (fragment_start u); [lia | exact I].
    + destruct (query_start u); [lia | exact I].
  - unfold u_slice_from. rewrite slice_from_o_some by lia. cbn [bindo].
    unfold truncate.
    assert (nlen (nfirstn (host_end u) (ser u) ++ [58] ++ decimal n) = host_end u + nlen (port_text (Some n))) as El.
    { rewrite nlen_app, nlen_nfirstn by lia. cbn [port_text app]. rewrite !nlen_cons. reflexivity. }
    rewrite El. rewrite !adjust_opt_ok by assumption. cbn [bindo]. unfold with_port. cbn [port_text].
    rewrite <- !app_assoc. reflexivity.
  - reflexivity.
Qed.

Theorem with_port_ok dbg u p : wf_b u = true -> host_text_ok u -> has_host u = true ->
  (match p with Some x => x <= 65535 | None => True end) ->
  let u' := with_port u p in
  wf_b u' = true /\ host_text_ok u' /\ same_ids dbg u u' /\ port u' = p /\ same_back dbg u u'.
Proof.
  intros W HT Hh Hp u'.
  pose proof (has_host_authority u W Hh) as Ha. pose proof (wf_auth_facts u W Ha) as F.
  pose proof (af_ue F); pose proof (af_hs F); pose proof (af_he F); pose proof (af_ps F); pose proof (af_len F).
  pose proof (HT Hh) as (Hne & Hne1 & Hne2).
  set (A := nfirstn (host_end u) (ser u)). set (X := port_text p). set (B := nskipn (path_start u) (ser u)).
  assert (nlen A = host_end u) as LA by (apply nlen_nfirstn; lia).
  assert (ser u' = A ++ X ++ B) as Es by reflexivity.
  assert (agree_pre (host_end u) (ser u) (ser u')) as Hpre by (rewrite Es; apply agree_pre_nfirstn; lia).
  assert (agree_suf (path_start u) (host_end u + nlen X) (ser u) (ser u')) as Hsuf.
  { unfold agree_suf. rewrite Es, app_assoc. rewrite nskipn_app_ge by (rewrite nlen_app; lia).
    rewrite nlen_app, LA, N.sub_diag. reflexivity. }
  assert (nlen (ser u') = host_end u + nlen X + (nlen (ser u) - path_start u)) as Hl.
  { rewrite Es, !nlen_app, LA. unfold B. rewrite nlen_nskipn. lia. }
  assert (shifted_tail (path_start u) (host_end u + nlen X) u u') as Hsh.
  { split; [|split; reflexivity]. change (path_start u') with (host_end u + nlen X). unfold shift. lia. }
  pose proof W as W0. apply wf_b_iff in W0. rewrite Ha in W0. destruct W0 as (S & (AU & PS) & Q).
  assert (has_authority_b u' = true) as Ha'.
  { rewrite (has_authority_b_pre (host_end u) u u' Hpre) by (try lia; reflexivity). exact Ha. }
  assert (wf_b u' = true) as W'.
  { apply wf_b_iff. rewrite Ha'. split; [|split; [split|]].
    - apply (scheme_ok_pre (host_end u) u u'); [exact Hpre | lia | reflexivity | exact S].
    - destruct AU as (A1 & A2 & A3 & A4 & A5 & U & Hn & P).
      unfold auth_ok, userinfo_ok, port_ok.
      change (scheme_end u') with (scheme_end u). change (username_end u') with (username_end u).
      change (host_start u') with (host_start u). change (host_end u') with (host_end u).
      change (hosti u') with (hosti u). change (port u') with p.
      change (path_start u') with (host_end u + nlen X).
      splits; try lia; try assumption.
      + destruct U as [(U1 & U2 & U3)|[(U1 & U2 & U3)|(U1 & U2)]].
        * left. splits; try assumption. rewrite (pre_byte_eqb _ _ _ _ _ Hpre) by lia. exact U3.
        * right. left. rewrite !(pre_byte_eqb _ _ _ _ _ Hpre) by lia. tauto.
        * right. right. rewrite !(pre_byte_eqb _ _ _ _ _ Hpre) by lia. tauto.
      + subst X. destruct p as [x|]; cbn [port_text] in *.
        * rewrite Es. cbn [port_text].
          splits.
          -- unfold byte_eqb. rewrite nnth_app_ge by lia. rewrite LA, N.sub_diag. cbn. apply N.eqb_refl.
          -- rewrite nlen_cons. lia.
          -- exact Hp.
          -- rewrite nskipn_app_ge by lia. rewrite LA.
             replace (host_end u + 1 - host_end u) with 1 by lia.
             change (nskipn 1 ((58 :: decimal x) ++ B)) with (decimal x ++ B).
             rewrite nlen_cons. replace (host_end u + (1 + nlen (decimal x)) - (host_end u + 1)) with (nlen (decimal x)) by lia.
             apply nfirstn_app_exact.
        * rewrite nlen_nil. lia.
    - apply (sfx_pathstart_ok u u' (path_start u) (host_end u + nlen X) W Hsuf); try lia; assumption.
    - apply (sfx_qf_ok u u' (path_start u) (host_end u + nlen X) W Hsuf); try lia; assumption. }
  split; [exact W'|]. split; [|split; [|split; [reflexivity|]]].
  - intros _. change (host_start u') with (host_start u). change (host_end u') with (host_end u).
    rewrite (pre_byte_eqb _ _ _ _ 58 Hpre) by lia. rewrite (pre_byte_eqb _ _ _ _ 64 Hpre) by lia. tauto.
  - apply (fp_ids u u' (host_end u)); try assumption; try reflexivity; lia.
  - apply (sfx_back dbg u u' (path_start u) (host_end u + nlen X)); try assumption; try lia.
Qed.

Lemma same_ids_refl dbg u : same_ids dbg u u.
Proof. repeat split. Qed.
Lemma same_back_refl dbg u : same_back dbg u u.
Proof. repeat split. Qed.

Lemma opt_eqb_eq a b : opt_eqb a b = true -> a = b.
Proof. destruct a, b; cbn; intros H; try discriminate; [f_equal; lia | reflexivity]. Qed.

Theorem set_port_internal_ok dbg u p : wf_b u = true -> host_text_ok u -> has_host u = true ->
  (match p with Some x => x <= 65535 | None => True end) ->
  exists u', set_port_internal dbg u p = Some u'
  /\ wf_b u' = true /\ host_text_ok u' /\ same_ids dbg u u' /\ port u' = p /\ same_back dbg u u'.
Proof.
  intros W HT Hh Hp. rewrite (set_port_internal_eval dbg u p W Hh).
  destruct (opt_eqb (port u) p) eqn:E.
  - exists u. split; [reflexivity|]. splits; try assumption; try apply same_ids_refl; try apply same_back_refl.
    apply opt_eqb_eq. exact E.
  - exists (with_port u p). split; [reflexivity|]. apply with_port_ok; assumption.
Qed.

(* cannot_have_credentials_or_port *)
Lemma chcp_eval u : wf_b u = true -> exists c, cannot_have_credentials_or_port u = Some c
  /\ (c = false -> has_host u = true).
Proof.
  intros W. unfold cannot_have_credentials_or_port. destruct (has_host u) eqn:Hh; cbn [negb].
  - rewrite (scheme_eval u W). unfold host_of.
    pose proof (has_host_authority u W Hh) as Ha. pose proof (wf_auth_facts u W Ha) as F.
    pose proof (af_he F); pose proof (af_ps F); pose proof (af_len F).
    destruct (hosti u); cbn [bindo]; try (eexists; split; [reflexivity | intros _; reflexivity]).
    unfold u_slice. rewrite slice_o_some by lia. cbn [bindo]. eexists; split; [reflexivity | intros _; reflexivity].
  - eexists; split; [reflexivity | discriminate].
Qed.

Definition norm_port (sch : list N) (p : option N) : option N :=
  match p with Some x => if opt_eqb p (default_port sch) then None else Some x | None => None end.

(* Url::set_port: no panic; Err leaves the record; Ok stores the port normalised against the
   scheme's default, everything else reads the same *)
Theorem set_port_ok dbg u p : wf_b u = true -> host_text_ok u ->
  (match p with Some x => x <= 65535 | None => True end) ->
  exists u' st, set_port dbg u p = Some (u', st)
  /\ (st <> SOk -> u' = u)
  /\ (st = SOk ->
      wf_b u' = true /\ host_text_ok u' /\ same_ids dbg u u' /\ same_back dbg u u'
      /\ exists sch, scheme u = Some sch /\ port u' = norm_port sch p).
Proof.
  intros W HT Hp. unfold set_port. destruct (chcp_eval u W) as (c & Ec & Hc). rewrite Ec. cbn [bindo].
  destruct c.
  - exists u, SErrUnit. split; [reflexivity|]. split; [reflexivity | discriminate].
  - specialize (Hc eq_refl). rewrite (scheme_eval u W). cbn [bindo].
    set (sch := piece u (pidx u BeforeScheme) (pidx u AfterScheme)).
    fold (norm_port sch p).
    assert (match norm_port sch p with Some x => x <= 65535 | None => True end) as Hp'.
    { unfold norm_port. destruct p as [x|]; [|exact I]. destruct (opt_eqb (Some x) (default_port sch)); [exact I | exact Hp]. }
    destruct (set_port_internal_ok dbg u (norm_port sch p) W HT Hc Hp') as (u' & E & W' & HT' & I' & P' & B').
    rewrite E. cbn [bindo]. exists u', SOk. split; [reflexivity|]. split; [intros X; contradiction|].
    intros _. splits; try assumption. exists sch. split; [reflexivity | exact P'].
Qed.
