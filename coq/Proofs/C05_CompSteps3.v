(* Proofs/C05_CompSteps3.v - the two steps for which step_gate2 (C05_CompReach) asks more than is needed:
     quirks set_host with a ':port' part (C05_CompSteps2.q_set_host_cinv3; set_host_internal with a new port, the
       frame is C06_Quirks.set_host_internal_port_post) - the gate of step_gate3 is host_gate alone, as for set_hostname;
     Url::set_ip_host - in the place of the hypothesis host_disp_ok hd h on the argument stands "h is an address value"
       (ip_arg: an Ipv4Addr is a u32, an Ipv6Addr eight u16) under the hypothesis IpDisp hd on the Display
       function (addresses are displayed as a non-empty text that does not start with ':' / '@';
       C09 discharges it for the host model);
   and the reachability relation CReach3 over step_gate3, whose join step needs no premise on the base
   when the base is itself a parse / join result (parse_url_base_ok). *)
From RU Require Import Base.Prelude Base.Utf8 Base.Utf8Facts Model.AsciiSet Gen.Tables Model.PercentEncoding
  Model.HostT Model.UrlRecord Model.Parser Model.Setters Model.WF
  Proofs.ListN Proofs.C03_WF Proofs.C05_Enc Proofs.C05_Parser Proofs.C05_Setters Proofs.C05_History
  Proofs.C05_Frag Proofs.C05_Query Proofs.C05_Comp Proofs.C05_PathClean Proofs.C05_CompSteps Proofs.C05_CompHist
  Proofs.C06_List Proofs.C06_WFI Proofs.C06_Tail Proofs.C06_Steps Proofs.C06_Suffix
  Proofs.C06_Front Proofs.C06_Atomic Proofs.C06_FragQuery Proofs.C06_Port Proofs.C06_Host Proofs.C06_Path Proofs.C06_Segments
  Proofs.C06_Main Proofs.C06_Quirks Proofs.C04_ParseTotal Proofs.C03_ReachParts Proofs.C03_Reach Proofs.C03_ReachFile
  Proofs.C05_ParseAll Proofs.C05_CompSteps2 Proofs.C05_CompReach Proofs.C05_BaseOk.

(* a value Url::set_ip_host can be given *)
Definition ip_arg (h : host) : Prop :=
  match h with
  | HIpv4 a => a < 4294967296
  | HIpv6 p => length p = 8%nat /\ Forall (fun x => x < 65536) p
  | HDomain _ => False
  end.

Definition IpDisp (hd : host -> list N) : Prop := forall h, ip_arg h -> host_disp_ok hd h.

Lemma ip_arg_is_ip h : ip_arg h -> is_ip h.
Proof. destruct h; cbn; tauto. Qed.

Lemma ip_arg_not_none h : ip_arg h -> hi_of_host h <> HI_None.
Proof. destruct h as [d|a|p]; cbn; [tauto | discriminate | discriminate]. Qed.

Section Steps3.
Variable dbg : bool.
Variable hp hpo : list N -> result host.
Variable hd : host -> list N.
Hypothesis HW : HostWf hp hpo hd.

(* Url::set_ip_host with an address value *)
Theorem set_ip_host_cinv3 u h u' st : IpDisp hd -> CInv dbg u -> ip_arg h ->
  (has_authority_b u = false -> path_start u = scheme_end u + 1) ->
  set_ip_host dbg hd u h = Some (u', st) -> CInv dbg u'.
Proof using.
  intros HI K Hv X2 H. apply (set_ip_host_cinv dbg hd u h u' st K (HI h Hv) X2); [|exact H].
  intros _ Hn. exfalso. exact (ip_arg_not_none h Hv Hn).
Qed.

Definition step_gate3 (u : url) (o : op) (u' : url) : Prop :=
  match o with
  | OQHost _ => host_gate u u'
  | OSetIpHost h => ip_arg h /\ (has_authority_b u = false -> path_start u = scheme_end u + 1)
  | _ => step_gate2 hp hpo hd u o u'
  end.

Theorem cinv_step3 u o u' : IpDisp hd -> CInv dbg u -> step_gate3 u o u' -> apply_op dbg hp hpo hd u o = Some u' -> CInv dbg u'.
Proof using HW.
  intros HI K G H.
  destruct o; try exact (cinv_step2 dbg hp hpo hd HW u _ u' K G H); cbn [apply_op step_gate3] in H, G.
  - apply drop_status_some in H. destruct H as [st H]. destruct G as [G1 G2].
    exact (set_ip_host_cinv3 u h u' st HI K G1 G2 H).
  - apply drop_status_some in H. destruct H as [st H]. destruct G as [G1 G2].
    exact (q_set_host_cinv3 dbg hp hpo hd HW u v u' st K G1 G2 H).
Qed.

(* step_gate2 implies step_gate3 whenever the address argument is a value *)
Lemma step_gate2_3 u o u' : (match o with OSetIpHost h => ip_arg h | _ => True end) ->
  step_gate2 hp hpo hd u o u' -> step_gate3 u o u'.
Proof using.
  intros Hv G. destruct o; try exact G; cbn [step_gate2 step_gate3 step_gate] in *.
  - destruct G as (_ & G & _). split; assumption.
  - exact (proj2 G).
Qed.

(* parse; parse against ANY reached base that is a parse / join result, or against a reached base with
   base_ok; a gated step of any of the 19 mutators *)
Inductive CReach3 : url -> Prop :=
| CR3_parse ovr input u : parse_url dbg hp hpo hd ovr None input = POk u -> CReach3 u
| CR3_join ovr b input u :
    CReach3 b -> base_ok b = true -> parse_url dbg hp hpo hd ovr (Some b) input = POk u -> CReach3 u
| CR3_step u o u' :
    CReach3 u -> step_gate3 u o u' -> apply_op dbg hp hpo hd u o = Some u' -> CReach3 u'.

Hypothesis HI : IpDisp hd.

Theorem creach3_cinv u : CReach3 u -> CInv dbg u.
Proof using HW HI.
  induction 1 as [ovr input u Hp | ovr b input u Rb IHb Hb Hp | u o u' R IH G H].
  - exact (parse_url_cinv dbg dbg hp hpo hd ovr None input u HW I Hp).
  - exact (parse_url_cinv dbg dbg hp hpo hd ovr (Some b) input u HW (conj IHb Hb) Hp).
  - exact (cinv_step3 u o u' HI IH G H).
Qed.

Theorem creach3_components u : CReach3 u -> wfh u /\ components_clean dbg u.
Proof using HW HI.
  intros R. destruct (creach3_cinv u R) as [[W HT] C]. split; [split; assumption|].
  exact (comp_ok_components dbg u W C).
Qed.

(* chains of parse and join need no premise at all: every link is a possible base *)
Inductive PJ : url -> Prop :=
| PJ_parse ovr input u : parse_url dbg hp hpo hd ovr None input = POk u -> PJ u
| PJ_join ovr b input u : PJ b -> parse_url dbg hp hpo hd ovr (Some b) input = POk u -> PJ u.

Theorem pj_base_ok u : PJ u -> base_ok u = true /\ host_text_ok u.
Proof using HW.
  induction 1 as [ovr input u Hp | ovr b input u Rb IHb Hp].
  - exact (parse_url_base_ok dbg hp hpo hd ovr None input u HW I Hp).
  - exact (parse_url_base_ok dbg hp hpo hd ovr (Some b) input u HW IHb Hp).
Qed.

Theorem pj_cinv u : PJ u -> CInv dbg u.
Proof using HW.
  induction 1 as [ovr input u Hp | ovr b input u Rb IHb Hp].
  - exact (parse_url_cinv dbg dbg hp hpo hd ovr None input u HW I Hp).
  - exact (parse_url_cinv dbg dbg hp hpo hd ovr (Some b) input u HW (conj IHb (proj1 (pj_base_ok b Rb))) Hp).
Qed.

Theorem creach3_components_pj u : PJ u -> wfh u /\ components_clean dbg u.
Proof using HW.
  intros R. destruct (pj_cinv u R) as [[W HT] C]. split; [split; assumption|].
  exact (comp_ok_components dbg u W C).
Qed.

Theorem pj_creach3 u : PJ u -> CReach3 u.
Proof using HW.
  induction 1 as [ovr input u Hp | ovr b input u Rb IHb Hp].
  - exact (CR3_parse ovr input u Hp).
  - exact (CR3_join ovr b input u IHb (proj1 (pj_base_ok b Rb)) Hp).
Qed.

(* CReach3 is a part of C05's Reachable *)
Lemma step_gate3_valid u o u' : step_gate3 u o u' -> op_valid o.
Proof using.
  destruct o; cbn [step_gate3 op_valid]; try (intros; exact I). intros [G _]. exact (ip_arg_is_ip h G).
Qed.

Theorem creach3_sub u : CReach3 u -> Reachable dbg hp hpo hd u.
Proof using.
  induction 1 as [ovr input u Hp | ovr b input u Rb IHb Hb Hp | u o u' R IH G H].
  - exact (R_parse dbg hp hpo hd ovr input u Hp).
  - exact (R_join dbg hp hpo hd ovr b input u IHb Hp).
  - exact (R_step dbg hp hpo hd u o u' IH (step_gate3_valid u o u' G) H).
Qed.

End Steps3.
