(* Proofs/Idna_C10_Config.v - the deprecated entry point Config::to_ascii (idna/src/deprecated.rs) agrees with
   Uts46::to_ascii: after map_transitional, same verdict and same text, with deny list STD3 / EMPTY, hyphen mode
   CheckFirstLast / Allow, DNS length mode VerifyAllowRootDot / Ignore.  The Passthrough branch of the
   deprecated code returns the characters where to_ascii returns the bytes; they are equal because a borrowed
   result is ASCII (the C10 output theorem, hence the premise NvNoTrunc). *)
From RU Require Import Base.Prelude Base.Utf8 Base.Utf8Facts Base.U32_c13 Gen.Tables Model.Punycode Model.Uts46
  Proofs.Idna_Sim Proofs.Idna_Api Proofs.Idna_Known Proofs.Idna_Hyp Proofs.Idna_Redisc
  Proofs.Idna_C10_Deny Proofs.Idna_C10_Inner Proofs.Idna_C10_Walk.

Lemma utf8_encode1_ascii_inv c : Forall (fun b => b < 128) (utf8_encode1 c) -> utf8_encode1 c = [c].
Proof.
  unfold utf8_encode1. destruct (c <? 128) eqn:E1; [reflexivity|].
  destruct (c <? 2048) eqn:E2.
  { intros H. inversion H as [|? ? _ H1]; subst. inversion H1 as [|? ? Hx _]; subst. lia. }
  destruct (c <? 65536) eqn:E3.
  { intros H. inversion H as [|? ? _ H1]; subst. inversion H1 as [|? ? _ H2]; subst. inversion H2 as [|? ? Hx _]; subst. lia. }
  intros H. inversion H as [|? ? _ H1]; subst. inversion H1 as [|? ? _ H2]; subst. inversion H2 as [|? ? _ H3]; subst.
  inversion H3 as [|? ? Hx _]; subst. lia.
Qed.
Lemma utf8_encode_ascii_inv l : Forall (fun b => b < 128) (utf8_encode l) -> utf8_encode l = l.
Proof.
  induction l as [|c r IH]; [reflexivity|]. unfold utf8_encode in *. cbn [flat_map]. intros H.
  apply Forall_app in H. destruct H as [H1 H2]. rewrite (utf8_encode1_ascii_inv c H1), (IH H2). reflexivity.
Qed.
Lemma utf8_encode_of_ascii (l : list N) : Forall (fun b => b < 128) l -> utf8_encode l = l.
Proof.
  induction 1 as [|b r Hb Hr IH]; [reflexivity|].
  unfold utf8_encode in *. cbn [flat_map]. rewrite IH. unfold utf8_encode1.
  replace (b <? 128) with true by lia. reflexivity.
Qed.
Lemma clean_lt deny l : Forall (clean deny) l -> Forall (fun b => b < 128) l.
Proof. intros H. eapply Forall_impl; [|exact H]. intros c [Hc _]. exact Hc. Qed.
Lemma is_ascii_l_true l : Forall (fun b => b < 128) l -> is_ascii_l l = true.
Proof.
  intros H. unfold is_ascii_l. apply forallb_forall. intros x Hx. rewrite Forall_forall in H.
  specialize (H x Hx). unfold is_ascii_cp. lia.
Qed.

(* map_transitional keeps scalar values *)
Lemma trans_table_usv : Forall (fun e => usv_list (snd e)) T_IDNA_TRANS.
Proof. unfold T_IDNA_TRANS. repeat constructor; unfold is_usv; lia. Qed.
Lemma trans_lookup_usv c t v : Forall (fun e => usv_list (snd e)) t -> trans_lookup c t = Some v -> usv_list v.
Proof.
  induction t as [|[k w] r IH]; intros Ht H; [discriminate|]. inversion Ht as [|? ? Hw Hr]; subst.
  cbn [trans_lookup] in H. destruct (c =? k); [inversion H; subst; exact Hw|exact (IH Hr H)].
Qed.
Lemma trans_char_usv c : is_usv c -> usv_list (trans_char c).
Proof.
  intros Hc. unfold trans_char. destruct (trans_lookup c T_IDNA_TRANS) as [v|] eqn:E.
  - exact (trans_lookup_usv c _ v trans_table_usv E).
  - constructor; [exact Hc|constructor].
Qed.
Lemma flat_trans_usv l : usv_list l -> usv_list (flat_map trans_char l).
Proof.
  induction 1 as [|c r Hc Hr IH]; [constructor|]. cbn [flat_map]. unfold usv_list. apply Forall_app.
  split; [exact (trans_char_usv c Hc)|exact IH].
Qed.
Lemma map_transitional_usv l t : usv_list l -> usv_list (map_transitional l t).
Proof.
  unfold map_transitional. destruct t; [|auto]. induction 1 as [|c r Hc Hr IH]; [constructor|].
  cbn [map_transitional_on]. destruct (trans_lookup c T_IDNA_TRANS).
  - apply flat_trans_usv. constructor; assumption.
  - constructor; assumption.
Qed.

Lemma config_deny_valid c : valid_deny (config_deny_list c).
Proof.
  unfold config_deny_list. destruct (use_std3_ascii_rules c); [left; reflexivity|].
  right. exists T_IDNA_EMPTY_GLYPHLESS, T_IDNA_EMPTY_LIST. reflexivity.
Qed.

Section Config.
Variable A : adapter.
Variable cfg : bool.

(* with sinks that never fail, process never reports a sink error *)
Lemma process_no_sink_error ff p d deny hy w st s a :
  process A cfg ff p d deny hy None None w = (st, s, a) -> st <> PSinkError.
Proof.
  unfold process. destruct (process_inner A cfg ff hy deny d) as [ptu bd he db ap|x]; [|intros H; inversion H; discriminate].
  destruct (ptu =? len d).
  { destruct (cfg && he); intros H; inversion H; discriminate. }
  destruct (ff && he); [intros H; inversion H; discriminate|].
  destruct (cfg && negb (Bool.eqb he (existsb is_fffd db))); [intros H; inversion H; discriminate|].
  destruct (walk1 cfg ff p d _ bd he (split_on DOT db) ap false ptu false false) as [ws we].
  cbn [fst snd run_sink negb].
  destruct we as [|huo|x]; try (intros H; inversion H; discriminate).
  destruct he; [intros H; inversion H; discriminate|].
  destruct (huo && w); [|intros H; inversion H; discriminate].
  destruct (walk2 cfg d false (split_on DOT db) ap false ptu false) as [ws2 we2].
  cbn [fst snd run_sink negb]. destruct we2; intros H; inversion H; discriminate.
Qed.

Theorem config_to_ascii_agrees c domain : NvNoTrunc A -> usv_list domain ->
  config_to_ascii A cfg c domain =
  match to_ascii A cfg (utf8_encode (map_transitional domain (transitional_processing c)))
          (config_deny_list c) (config_hyphens c)
          (if cfg_verify_dns_length c then DVerifyAllowRootDot else DIgnore) with
  | Ok (_, r) => Ok r | Err => Err | Panic p => Panic p end.
Proof.
  intros HN Hu. unfold config_to_ascii, idna_to_ascii.
  set (mapped := map_transitional domain (transitional_processing c)).
  assert (Hbm : bytes (utf8_encode mapped)) by (apply utf8_encode_bytes, map_transitional_usv; exact Hu).
  pose proof (config_deny_valid c) as Hv. destruct (valid_deny_facts _ Hv) as [HU HL].
  pose proof (fun b r => to_ascii_clean A cfg (utf8_encode mapped) (config_deny_list c) (config_hyphens c) DIgnore b r HN Hbm HU HL) as HC.
  unfold to_ascii in *.
  destruct (process A cfg true never_unicode (utf8_encode mapped) (config_deny_list c) (config_hyphens c) None None false)
    as [[st s] a] eqn:Ep.
  pose proof (process_no_sink_error _ _ _ _ _ _ _ _ _ Ep) as Hns.
  destruct st as [| | | |p]; try reflexivity; [| |contradiction Hns; reflexivity].
  - (* Passthrough: the characters are the bytes *)
    cbn [dns_is_ignore negb] in HC. specialize (HC true (utf8_encode mapped) eq_refl).
    pose proof (clean_lt _ _ HC) as Hlt. pose proof (utf8_encode_ascii_inv mapped Hlt) as He.
    rewrite He in *. cbn [app].
    destruct (cfg_verify_dns_length c); [|reflexivity].
    cbn [dns_is_ignore dns_is_root negb]. unfold verify_dns_length_pub.
    rewrite (is_ascii_l_true mapped Hlt). rewrite andb_false_r.
    destruct (verify_dns_length mapped true); reflexivity.
  - (* WroteToSink *)
    cbn [dns_is_ignore negb] in HC. specialize (HC false s eq_refl).
    pose proof (clean_lt _ _ HC) as Hlt. cbn [app].
    destruct (cfg_verify_dns_length c); [|reflexivity].
    cbn [dns_is_ignore dns_is_root negb]. unfold verify_dns_length_pub.
    rewrite (utf8_encode_of_ascii s Hlt).
    rewrite (is_ascii_l_true s Hlt). rewrite andb_false_r.
    destruct (verify_dns_length s true); reflexivity.
Qed.
End Config.

(* out_ok deny r: the output clause of C10_ascii_statement; below, at every entry point *)
Definition out_ok (deny : N) (r : list N) : Prop :=
  Forall (fun c => c < 128 /\ is_upper c = false /\ deny_member deny c = false) r.


Theorem entry_points_output A cfg : NvNoTrunc A ->
  (forall d deny b r, bytes d -> valid_deny deny -> domain_to_ascii_cow A cfg d deny = Ok (b, r) -> out_ok deny r) /\
  (forall s r, usv_list s -> domain_to_ascii A cfg s = Ok r -> out_ok DENY_EMPTY r) /\
  (forall s r, usv_list s -> domain_to_ascii_strict A cfg s = Ok r -> out_ok DENY_STD3 r) /\
  (forall c s r, usv_list s -> config_to_ascii A cfg c s = Ok r -> out_ok (config_deny_list c) r).
Proof.
  intros HN. repeat split.
  - intros d deny b r Hb Hv H. exact (to_ascii_output A cfg d deny HAllow DIgnore b r HN Hb Hv H).
  - intros s r Hs H. unfold domain_to_ascii, domain_to_ascii_cow in H.
    destruct (to_ascii A cfg (utf8_encode s) DENY_EMPTY HAllow DIgnore) as [[b r0]| |p] eqn:E; try discriminate.
    inversion H. subst r0.
    exact (to_ascii_output A cfg _ _ _ _ b r HN (utf8_encode_bytes s Hs) deny_empty_valid E).
  - intros s r Hs H. unfold domain_to_ascii_strict in H.
    destruct (to_ascii A cfg (utf8_encode s) DENY_STD3 HCheck DVerify) as [[b r0]| |p] eqn:E; try discriminate.
    inversion H. subst r0.
    exact (to_ascii_output A cfg _ _ _ _ b r HN (utf8_encode_bytes s Hs) (or_introl eq_refl) E).
  - intros c s r Hs H. rewrite (config_to_ascii_agrees A cfg c s HN Hs) in H.
    match type of H with match ?t with _ => _ end = _ => destruct t as [[b r0]| |p] eqn:E end; try discriminate.
    inversion H. subst r0.
    exact (to_ascii_output A cfg _ _ _ _ b r HN
             (utf8_encode_bytes _ (map_transitional_usv s _ Hs)) (config_deny_valid c) E).
Qed.
