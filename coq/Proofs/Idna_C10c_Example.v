(* Proofs/Idna_C10c_Example.v - the premises of C10_idem3 are satisfiable: the adapter `lowsan` (ASCII lower-casing,
   everything that is not a scalar value becomes U+FFFD) meets all six, and a concrete non-ASCII name is mapped to its
   xn-- form, which the second call returns borrowed.  The six premises hold of every adapter that maps and validates
   character by character under six pointwise conditions (pointwise_premises; also used for mapad and lowsan4 of
   Proofs/Idna_C12c_Stmt4.v). *)
From RU Require Import Base.Prelude Base.Utf8 Base.U32_c13 Gen.Tables Model.Punycode Model.Uts46
  Proofs.Idna_Sim Proofs.Idna_Api Proofs.Idna_Known Proofs.Idna_Hyp Proofs.Idna_C10_Inner Proofs.Idna_C10b_Long
  Proofs.Idna_C10b_Stmt Proofs.Idna_WalkEnc Proofs.Idna_C10c_Puny Proofs.Idna_C10c_Drun.

Definition san_low (c : N) : N := if is_usvb c then to_lower c else FFFD.
Definition san_id (c : N) : N := if is_usvb c then c else FFFD.
Definition lowsan : adapter :=
  {| map_normalize := map san_low; normalize_validate := map san_id;
     joining_type := fun _ => 0; bidi_class := toy_bc;
     is_mark := fun _ => false; is_virama := fun _ => false |}.

Lemma usvb_spec c : is_usvb c = true <-> is_usv c.
Proof. unfold is_usvb, is_usv. split; intros H; lia. Qed.
Lemma san_low_usv c : is_usv (san_low c).
Proof.
  unfold san_low. destruct (is_usvb c) eqn:E; [|unfold is_usv, FFFD, REPLACEMENT; lia].
  apply usvb_spec in E. unfold is_usv, to_lower, is_upper in *. destruct ((65 <=? c) && (c <=? 90)) eqn:E2; lia.
Qed.
Lemma san_id_usv c : is_usv (san_id c).
Proof. unfold san_id. destruct (is_usvb c) eqn:E; [apply usvb_spec; exact E|unfold is_usv, FFFD, REPLACEMENT; lia]. Qed.
Lemma san_id_fix c : is_usv c -> san_id c = c.
Proof. intros H. unfold san_id. apply usvb_spec in H. rewrite H. reflexivity. Qed.
Lemma san_low_lower c : san_low (to_lower c) = san_low c.
Proof.
  unfold san_low. rewrite to_lower_idem.
  replace (is_usvb (to_lower c)) with (is_usvb c); [reflexivity|].
  unfold is_usvb, to_lower, is_upper. destruct ((65 <=? c) && (c <=? 90)) eqn:E; [|reflexivity]. lia.
Qed.
Lemma san_low_ascii c : c < 128 -> san_low c = to_lower c.
Proof. intros H. unfold san_low. replace (is_usvb c) with true; [reflexivity|]. unfold is_usvb. lia. Qed.

(* an adapter that maps and validates character by character *)
Section Pointwise.
Variables f g : N -> N.
Hypothesis f_usv : forall c, is_usv (f c).
Hypothesis f_lower : forall c, f (to_lower c) = f c.
Hypothesis f_ascii : forall c, c < 128 -> f c = to_lower c.
Hypothesis g_usv : forall c, is_usv (g c).
Hypothesis g_f : forall c, g (f c) = f c.
Hypothesis g_idem : forall c, g c <> FFFD -> g (g c) = g c.

Definition pointwise : adapter :=
  {| map_normalize := map f; normalize_validate := map g;
     joining_type := fun _ => 0; bidi_class := toy_bc;
     is_mark := fun _ => false; is_virama := fun _ => false |}.

Lemma map_f_ascii a : is_ascii_l a = true -> map f a = map to_lower a.
Proof.
  intros Ha. unfold is_ascii_l in Ha. rewrite forallb_forall in Ha. apply map_ext_in. intros x Hx. specialize (Ha x Hx).
  unfold is_ascii_cp in Ha. apply f_ascii. lia.
Qed.

Lemma pointwise_premises :
  AdapterOK pointwise /\ AdapterUSV pointwise /\ NvNoTrunc pointwise /\ NvIdem pointwise /\ AsciiNoMark pointwise /\ MapPrefix pointwise.
Proof.
  split; [constructor; cbn [pointwise map_normalize normalize_validate]|split; [constructor; intros l|split; [|split; [|split]]]].
  - reflexivity.
  - exact map_f_ascii.
  - intros l l' H. unfold ascii_case_variant in H.
    assert (G : forall x, map f x = map f (map to_lower x)).
    { intros x. rewrite map_map. apply map_ext. intros c. symmetry. apply f_lower. }
    rewrite (G l), (G l'), H. reflexivity.
  - intros l _ piece Hp.
    assert (Hq : Forall (fun x => g x = x) (map f l)).
    { apply Forall_forall. intros x Hx. apply in_map_iff in Hx. destruct Hx as (c & <- & _). apply g_f. }
    pose proof (Idna_C10_Deny.split_on_Forall _ DOT _ Hq) as Hs. rewrite Forall_forall in Hs. specialize (Hs piece Hp). clear Hp.
    induction Hs as [|x r Hx _ IH]; [reflexivity|]. cbn [map]. rewrite Hx, IH. reflexivity.
  - intros l H1 H2 E. rewrite E in H2. rewrite H1 in H2. discriminate.
  - cbn [pointwise map_normalize]. apply Forall_forall. intros x Hx. apply in_map_iff in Hx. destruct Hx as (c & <- & _). apply f_usv.
  - cbn [pointwise normalize_validate]. apply Forall_forall. intros x Hx. apply in_map_iff in Hx. destruct Hx as (c & <- & _). apply g_usv.
  - intros l t H. cbn [pointwise normalize_validate] in H. apply (f_equal (@List.length N)) in H.
    rewrite app_length, map_length in H. destruct t; [reflexivity|]. cbn [List.length] in H. lia.
  - intros l H. cbn [pointwise normalize_validate] in *. rewrite map_map. apply map_ext_in. intros c Hc. apply g_idem.
    intros E. assert (Hx : existsb is_fffd (map g l) = true); [|rewrite Hx in H; discriminate].
    apply existsb_exists. exists (g c). split; [apply in_map; exact Hc|rewrite E; apply N.eqb_refl].
  - intros c _. reflexivity.
  - intros a c r Ha Hc. cbn [pointwise map_normalize]. rewrite map_app, (map_f_ascii a Ha). reflexivity.
Qed.
End Pointwise.

Lemma lowsan_premises : AdapterOK lowsan /\ AdapterUSV lowsan /\ NvNoTrunc lowsan /\ NvIdem lowsan /\ AsciiNoMark lowsan /\ MapPrefix lowsan.
Proof.
  apply (pointwise_premises san_low san_id san_low_usv san_low_lower san_low_ascii san_id_usv).
  - intros c. exact (san_id_fix _ (san_low_usv c)).
  - intros c _. exact (san_id_fix _ (san_id_usv c)).
Qed.
Lemma lowsan_ok : AdapterOK lowsan.
Proof. exact (proj1 lowsan_premises). Qed.

(* "A.Bücher" (UTF-8) -> "a.xn--bcher-kva"; the second call borrows *)
Definition W_idem3 : list N := [65; 46; 66; 195; 188; 99; 104; 101; 114].
Definition W_idem3_A : list N := [97; 46; 120; 110; 45; 45; 98; 99; 104; 101; 114; 45; 107; 118; 97].
Lemma w_idem3 :
  to_ascii lowsan true W_idem3 DENY_URL HCheck DVerify = Ok (false, W_idem3_A) /\
  Known_C10_long W_idem3_A = false /\
  to_ascii lowsan true W_idem3_A DENY_URL HCheck DVerify = Ok (true, W_idem3_A).
Proof. vm_compute. repeat split; reflexivity. Qed.
