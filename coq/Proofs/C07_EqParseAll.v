(* Proofs/C07_EqParseAll.v - vocabulary of the parse clause and of the href setter for EVERY input outside Known_C01.
   Host functions: host_fns_ok (Proofs/C07_EqHostname.v: the two sides agree), HostWf (Proofs/C03_ReachParts.v:
   the text of a non-empty host is not empty, led by neither ':' nor '@' and does not end with '/') and the
   empty host serialises as the empty string - together host_parse_ok, met by the functions ok_* below.
   An href value is covered when the URL it denotes fits u32 (href_fits) and its scheme is not "file" (href_ok).
   The theorems themselves are proved under the weaker hypothesis of Proofs/C07_AllOn.v. *)
From Coq Require Import Bool.
From RU Require Import Base.Prelude Base.Utf8 Model.AsciiSet Gen.Tables Model.PercentEncoding
  Model.HostT Model.UrlRecord Model.Parser Model.Setters Model.WF Model.KnownC01 Model.KnownC07 Spec.Whatwg
  Proofs.ListN Proofs.C03_WF Proofs.C06_Suffix Proofs.C06_Host Proofs.C08_Input
  Proofs.C02_Enc Proofs.C01_Tables Proofs.C01_EqRun Proofs.C01_EqEnc Proofs.C01_EqApi Proofs.C01_EqRef
  Proofs.C01_EqAuthModel Proofs.C01_EqSpModel Proofs.C01_EqRelArms Proofs.C01_EqSpBase
  Proofs.C01_EqAsm Proofs.C01_EqShape Proofs.C01_KnownExact Proofs.C01_EqCover
  Proofs.C03_ReachParts
  Proofs.C07_Defs Proofs.C07_Histories Proofs.C07_Corr Proofs.C07_SpecProto Proofs.C07_EqProto Proofs.C07_EqSix
  Proofs.C07_EqFive Proofs.C07_EqHostname Proofs.C07_EqSeven
  Proofs.C07_EqRel Proofs.C07_SpecInv Proofs.C07_ParseExtra.

(* the hypotheses on the host functions *)
Definition host_parse_ok (hp ho : list N -> result host) (hd : host -> list N)
           (shp : bool -> list N -> option spec_host) (shs : spec_host -> list N) : Prop :=
  host_fns_ok hp ho hd shp shs /\ HostWf hp ho hd /\ shs SEmpty = [].

Section All.
Variable hd : host -> list N.
Variable shp : bool -> list N -> option spec_host.
Variable shs : spec_host -> list N.

Lemma disp_nil_iff h : host_disp_ok hd h -> (hd h = [] <-> h = HDomain []).
Proof.
  unfold host_disp_ok. destruct h as [[|c d]|a|p]; cbn [hi_of_host]; intros H; split; intros E;
    try reflexivity; try discriminate E; try exact H; destruct H as (c0 & r0 & H & _); rewrite H in E; discriminate E.
Qed.

Lemma disp_not_colon h : host_disp_ok hd h -> starts_with_cp 58 (hd h) = false.
Proof.
  unfold host_disp_ok. destruct (hi_of_host h); intros H; try (rewrite H; reflexivity);
    destruct H as (c0 & r0 & -> & H1 & _); cbn [starts_with_cp]; apply N.eqb_neq; exact H1.
Qed.

(* Known_C01 without a base does not contain every input whose scheme is "file" (class 1 leaves out the inputs in
   the raw-segment recogniser k_file_ok of Model/KnownC01.v): the bridge related => corrS is proved for schemes other
   than "file" only, so file inputs are excluded explicitly (input_is_file of Proofs/C07_ParseExtra.v) *)
Lemma input_not_file input sch rem :
  parse_scheme CUrlParser (input_new_trim_c0 input) = Some (sch, rem) ->
  input_is_file input = false -> list_eqb sch s_file = false.
Proof.
  intros Es Hif. unfold input_is_file in Hif. rewrite Es in Hif.
  rewrite C07_EqProto.file_test_same in Hif. exact Hif.
Qed.

(* outside Known_C01 and not "file" = outside the predicate known_c01_v1 (class 1 = the whole file scheme),
   on which C01_statement_all stands *)
Lemma known_v1_of input : known_c01 None input = 0 -> input_is_file input = false -> known_c01_v1 None input = 0.
Proof.
  intros Hk Hif. unfold known_c01 in Hk. cbv zeta in Hk.
  destruct ((known_c01_v1 None input =? 1) && k_file_narrow None input) eqn:E; [|exact Hk].
  exfalso. apply andb_true_iff in E. destruct E as [_ E]. unfold k_file_narrow in E. cbv zeta in E.
  unfold cleaned in E. fold (ntnl (input_new_trim_c0 input)) in E. unfold input_is_file in Hif.
  destruct (parse_scheme CUrlParser (input_new_trim_c0 input)) as [[sch rem]|] eqn:Es.
  - apply scheme_state_some in Es. apply spec_scheme_some_leading in Es. destruct Es as [El _]. rewrite El in E.
    rewrite C07_EqProto.file_test_same in Hif. change str_file with s_file in Hif. rewrite Hif in E. discriminate E.
  - apply scheme_state_none in Es. apply spec_scheme_none_leading in Es. rewrite Es in E. discriminate E.
Qed.

Lemma not_file_type sch : list_eqb sch s_file = false -> st_is_file (scheme_type_of sch) = false.
Proof.
  intros H. unfold scheme_type_of. rewrite H.
  destruct (list_eqb sch s_http || list_eqb sch s_https || list_eqb sch s_ws || list_eqb sch s_wss || list_eqb sch s_ftp);
    reflexivity.
Qed.

(* href: the parser without a base *)
(* the one arm of C01 that is not an agreement: a URL whose serialization exceeds u32::MAX bytes - the model
   answers Err(Overflow) and keeps the URL it had, the Standard sets the new one *)
Definition href_fits (v : list N) : Prop :=
  match spec_basic_url_parse shp v None with
  | BDone su' => nlen (get_href shs su') <= U32_MAX_P
  | _ => True
  end.

(* a value the href clause covers: it fits, and its scheme is not "file" (see input_not_file above) *)
Definition href_ok (v : list N) : Prop := href_fits v /\ input_is_file v = false.

(* eight setters *)
Fixpoint eight_ops (ops : list (qsetter * list N)) : Prop :=
  match ops with
  | [] => True
  | (s, v) :: r => (seven s = true \/ (s = QHref /\ href_ok v)) /\ usv_list v /\ eight_ops r
  end.

End All.

(* host functions that meet host_parse_ok *)
Definition bad_text (s : list N) : bool := bad_head s || ends_with_byte 47 s.
Definition ok_hp (s : list N) : result host :=
  match s with [] => Err EmptyHost | _ => if bad_text s then Err InvalidDomainCharacter else Ok (HDomain s) end.
Definition ok_ho (s : list N) : result host :=
  match s with [] => Ok (HDomain []) | _ => if bad_text s then Err InvalidDomainCharacter else Ok (HDomain s) end.
Definition ok_shp (o : bool) (s : list N) : option spec_host :=
  match s with
  | [] => if o then Some SEmpty else None
  | _ => if bad_text s then None else Some (if o then SOpaque s else SDomain s)
  end.

Theorem ok_host_parse_ok : host_parse_ok ok_hp ok_ho toy_hd ok_shp toy_shs.
Proof.
  split; [|split; [|reflexivity]].
  - split; intros [|c r]; unfold host_parsing, ok_hp, ok_ho, ok_shp.
    + exact I.
    + destruct (bad_text (c :: r)) eqn:E; [exact I|]. unfold bad_text in E. apply orb_false_iff in E.
      destruct E as [E _]. cbn [bad_head] in E. apply orb_false_iff in E. destruct E as [E1 E2].
      split; [reflexivity|]. split.
      * unfold host_disp_ok. cbn [hi_of_host toy_hd]. exists c, r. split; [reflexivity | lia].
      * split; split; intros H; discriminate H.
    + split; [reflexivity|]. split; [reflexivity|]. split; split; reflexivity.
    + destruct (bad_text (c :: r)) eqn:E; [exact I|]. unfold bad_text in E. apply orb_false_iff in E.
      destruct E as [E _]. cbn [bad_head] in E. apply orb_false_iff in E. destruct E as [E1 E2].
      split; [reflexivity|]. split.
      * unfold host_disp_ok. cbn [hi_of_host toy_hd]. exists c, r. split; [reflexivity | lia].
      * split; split; intros H; discriminate H.
  - assert (forall c r, bad_text (c :: r) = false -> host_text_wf (c :: r)) as K.
    { intros c r E. unfold bad_text in E. apply orb_false_iff in E. destruct E as [E E47].
      cbn [bad_head] in E. apply orb_false_iff in E. destruct E as [E1 E2].
      unfold host_text_wf. split; [discriminate|]. split; [|split; [|exact E47]];
        cbn; intros H; injection H as H; lia. }
    split; [|split; [|reflexivity]].
    + intros [|c r] h; unfold ok_hp; [discriminate|].
      destruct (bad_text (c :: r)) eqn:E; [discriminate|]. intros H _. injection H as <-. exact (K c r E).
    + intros [|c r] h; unfold ok_ho.
      * intros H Hne. injection H as <-. contradiction.
      * destruct (bad_text (c :: r)) eqn:E; [discriminate|]. intros H _. injection H as <-. exact (K c r E).
Qed.
