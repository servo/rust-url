(* Proofs/C02_Ovr.v - G2: the query state with an ARBITRARY encoding override.
   With an override o the query state percent-encodes, part by part (parts are separated by tab / LF / CR), the
   value  o part  with the query set of the scheme kind (parser.rs parse_query: QueryPartIter + percent_encode).
   Whatever o returns - no premise on o at all, not even that its values are bytes - the text written is free of
   every byte the set encodes (C03_ReachParts.pe_display_Q: a percent-encoder never emits a byte of its own set, and
   '%', the upper-case hex digits are outside the query sets), hence free of '#', tab, LF, CR and non-ASCII: it is
   query text in canonical form, which the UTF-8 re-parse stores unchanged.  So pqf_out holds for every override in
   an existential form (pqf_out_g = C02_JoinTail.qf_spec: with an override the query text is not query_of st l), and with it L1 of
   the special class, every arm of the relative state on a special base and the tail arms (the lemmas of C02_JoinTail /
   C02_JoinPath instantiated with pqf_out_g):  the premise "no override, or non-special scheme" of
   C02_parse_Canon / C02_join_*_Canon disappears.
   Second part (item 1): references carrying the special scheme of the base followed by fewer than two slashes
   ("http:x" against an http base): parser.rs hands the text behind the colon to the relative state - the same state
   scheme-less references go through - so the result is canonical for every such reference. *)
From RU Require Import Base.Prelude Model.AsciiSet Gen.Tables Model.PercentEncoding Model.HostT Model.UrlRecord
  Model.Parser Proofs.ListN Proofs.C02_Enc Proofs.C02_Parts Proofs.C02_Opaque Proofs.C02_Path
  Proofs.C02_AuthParts Proofs.C02_Auth Proofs.C02_AuthWf Proofs.C02_PathSp Proofs.C02_AuthSp Proofs.C02_AuthMain
  Proofs.C02_SetQF Proofs.C02_Canon Proofs.C02_JoinTail Proofs.C02_JoinAbs Proofs.C02_JoinPath
  Proofs.C03_ReachParts.
Open Scope N_scope.
Open Scope list_scope.

(* 1. percent-encoded text is clean, for ANY list of numbers *)
Lemma pct_out_kept S c : set_stable S = true -> pct_out c = true -> kept S c = true.
Proof.
  intros HS H. unfold pct_out in H. apply orb_true_iff in H. destruct H as [H | H].
  - apply orb_true_iff in H. destruct H as [H | H].
    + apply N.eqb_eq in H. subst c. exact (set_stable_pct S HS).
    + unfold is_digit in H. replace c with (hex_upper (c - 48)) by (unfold hex_upper; destruct (c - 48 <? 10) eqn:E; lia).
      apply set_stable_hex; [exact HS | lia].
  - replace c with (hex_upper (c - 55)) by (unfold hex_upper; destruct (c - 55 <? 10) eqn:E; lia).
    apply set_stable_hex; [exact HS | lia].
Qed.

Lemma pe_display_clean S bs : set_stable S = true -> clean S (pe_display S bs) = true.
Proof.
  intros HS. unfold clean. apply pe_display_Q.
  - intros c Hc. exact (pct_out_kept S c HS Hc).
  - intros b Hb. unfold kept. rewrite Hb. reflexivity.
Qed.

(* 2. the query loop with an arbitrary encoder *)
Fixpoint qtext (S : aset) (enc : list N -> list N) (stop : bool) (part : list N) (l : list N) : list N :=
  match l with
  | [] => match part with [] => [] | _ => pe_display S (enc (rev part)) end
  | c :: r => if is_tnl c then pe_display S (enc (rev part)) ++ qtext S enc stop [] r
              else if (c =? 35) && stop then pe_display S (enc (rev part))
              else qtext S enc stop (c :: part) r
  end.

Lemma parse_query_loop_g S enc stop l : forall ser part,
  parse_query_loop S enc stop ser part l = (ser ++ qtext S enc stop part l, query_rest stop l).
Proof.
  induction l as [|c r IH]; intros ser part.
  - cbn [parse_query_loop qtext query_rest]. destruct part as [|x y]; [rewrite app_nil_r; reflexivity | reflexivity].
  - cbn [parse_query_loop qtext query_rest]. destruct (is_tnl c).
    + rewrite IH. unfold flush_part. rewrite <- app_assoc. reflexivity.
    + destruct ((c =? 35) && stop); [reflexivity | apply IH].
Qed.

Lemma qtext_clean S enc stop l : set_stable S = true -> forall part, clean S (qtext S enc stop part l) = true.
Proof.
  intros HS. induction l as [|c r IH]; intros part; cbn [qtext].
  - destruct part; [reflexivity | apply pe_display_clean; exact HS].
  - destruct (is_tnl c).
    + rewrite clean_app, IH, (pe_display_clean S _ HS). reflexivity.
    + destruct ((c =? 35) && stop); [apply pe_display_clean; exact HS | apply IH].
Qed.

(* 3. query and fragment, any override *)
Section QFg.
Variable ovr : option (list N -> list N).
Variable st : scheme_type.
Variable se : N.

Theorem pqf_out_g ser l s' qs fs : usv_list l ->
  parse_query_and_fragment ovr CUrlParser st se ser l = POk (s', qs, fs) ->
  exists q f, s' = ser ++ qf_text q f
  /\ qs = qf_qs (nlen ser) q /\ fs = qf_fs (nlen ser) q f
  /\ opt_le qs U32_MAX_P /\ opt_le fs U32_MAX_P
  /\ opt_clean (query_set st) q /\ opt_clean T_FRAGMENT f.
Proof.
  intros Hl. unfold parse_query_and_fragment.
  destruct (inp_next l) as [[c r]|] eqn:En.
  2:{ intros H. inversion H; subst. exists None, None. unfold qf_text. cbn. rewrite app_nil_r. repeat split. }
  pose proof (inp_next_usv l c r Hl En) as Hr.
  destruct (c =? 35) eqn:E35.
  - destruct (to_u32 (nlen ser)) as [n| |] eqn:Eu; cbn [pbind]; try discriminate.
    apply to_u32_inv in Eu. destruct Eu as [-> Hb].
    intros H. inversion H; subst. rewrite parse_fragment_spec by exact Hr.
    exists None, (Some (frag_of r)).
    unfold qf_text. cbn [qf_qtext qf_ftext qf_qs qf_fs app nlen length opt_le opt_clean].
    rewrite <- app_assoc. repeat split; try assumption; try (f_equal; unfold nlen; cbn; lia).
    apply frag_of_clean. exact Hr.
  - destruct (c =? 63) eqn:E63; [|discriminate].
    destruct (to_u32 (nlen ser)) as [n| |] eqn:Eu; cbn [pbind]; try discriminate.
    apply to_u32_inv in Eu. destruct Eu as [-> Hb].
    unfold parse_query. cbn [ctx_eqb]. rewrite parse_query_loop_g.
    set (Q := qtext (query_set st) (query_enc ovr (nfirstn se (ser ++ [63]))) true [] r).
    assert (clean (query_set st) Q = true) as HQ by (apply qtext_clean; apply stable_query_set).
    destruct (query_rest true r) as [r2|] eqn:Eq.
    + pose proof (usv_query_rest true r r2 Hr Eq) as Hr2.
      destruct (to_u32 (nlen ((ser ++ [63]) ++ Q))) as [n| |] eqn:Eu2; cbn [pbind]; try discriminate.
      apply to_u32_inv in Eu2. destruct Eu2 as [-> Hb2].
      intros H. inversion H; subst. rewrite parse_fragment_spec by exact Hr2.
      exists (Some Q), (Some (frag_of r2)).
      unfold qf_text. cbn [option_map qf_qtext qf_ftext qf_qs qf_fs opt_le opt_clean].
      rewrite !nlen_app in *. rewrite nlen_cons.
      repeat split; try assumption;
        try (apply frag_of_clean; exact Hr2);
        try (rewrite <- !app_assoc; reflexivity);
        try (f_equal; unfold nlen in *; cbn [length] in *; lia);
        try (unfold nlen in *; cbn [length] in *; lia).
    + intros H. inversion H; subst. exists (Some Q), None.
      unfold qf_text. cbn [option_map qf_qtext qf_ftext qf_qs qf_fs opt_le opt_clean].
      rewrite app_nil_r, <- app_assoc. repeat split; assumption.
Qed.
End QFg.

(* 4. L1 of the special class, any override *)
Section SpG.
Variable dbg : bool.
Variable hp hpo : list N -> result host.
Variable hd : host -> list N.
Hypothesis HRT : HostRT hp hpo hd.
Hypothesis HAb : host_above hp hpo hd.
Variable ovr : option (list N -> list N).

Notation auth_ok := (auth_ok hp hpo hd).
Notation auth_url := (auth_url hd).
Notation auth_front := (auth_front hd).
Notation auth_pre := (auth_pre hd).
Notation Canon := (Canon hp hpo hd).

(* everything after the slashes (ads_out_sp with an override) *)
Theorem ads_out_sp_g sch l u : scheme_canon sch = true -> scheme_type_of sch = STSpecialNotFile -> usv_list l ->
  after_double_slash dbg hp hpo hd ovr CUrlParser STSpecialNotFile (nlen sch) (sch ++ [58]) l = POk u ->
  exists ui h pt p q f, auth_ok STSpecialNotFile sch ui h pt p q f /\ pth_ok_sp p /\ u = auth_url sch ui h pt p q f.
Proof.
  intros Hsc Hst Hu Ha.
  exact (ads_out_st dbg hp hpo hd HRT HAb ovr STSpecialNotFile sch l u Hsc Hst eq_refl
           (fun ui h pt p => pqf_out_g ovr STSpecialNotFile (nlen sch) (auth_pre sch ui h pt p)) Hu Ha).
Qed.

(* L1 for the class, from the input, any override *)
Theorem parse_special_out_g input sch rem u : usv_list input ->
  parse_scheme CUrlParser (input_new_trim_c0 input) = Some (sch, rem) ->
  scheme_type_of sch = STSpecialNotFile ->
  parse_url dbg hp hpo hd ovr None input = POk u ->
  exists ui h pt p q f, auth_ok STSpecialNotFile sch ui h pt p q f /\ pth_ok_sp p /\ u = auth_url sch ui h pt p q f.
Proof.
  intros Hu Hs Hst. unfold parse_url. rewrite Hs. unfold parse_with_scheme. rewrite Hst.
  destruct (to_u32 (nlen sch)) as [se| |] eqn:Eu; cbn [pbind]; try discriminate.
  apply to_u32_inv in Eu. destruct Eu as [-> Hb0].
  pose proof (scheme_rem_usv input sch rem Hu Hs) as Hur.
  destruct (inp_count_matching is_slash_or_bslash rem) as [n remaining] eqn:Ec.
  pose proof (count_matching_usv _ _ _ _ Hur Ec) as Hur'.
  apply ads_out_sp_g; [exact (parse_scheme_out _ _ _ Hs) | exact Hst | exact Hur'].
Qed.

(* every parse result without base of a non-file scheme is canonical: NO premise on the override *)
Theorem parse_Canon_g input u : usv_list input -> nonfile_input input = true ->
  parse_url dbg hp hpo hd ovr None input = POk u -> Canon u.
Proof.
  intros Hu Hc Hp. destruct (special_input input) eqn:Hsi.
  2:{ exact (parse_Canon dbg hp hpo hd HRT ovr input u HAb Hu Hc (or_intror Hsi) Hp). }
  unfold special_input in Hsi.
  destruct (parse_scheme CUrlParser (input_new_trim_c0 input)) as [[sch rem]|] eqn:Hs; [|discriminate].
  destruct (scheme_type_of sch) eqn:Hst; try discriminate.
  destruct (parse_special_out_g input sch rem u Hu Hs Hst Hp) as (ui & h & pt & p & q & f & K & Kp & ->).
  exact (Canon_special hp hpo hd sch ui h pt p q f K Kp).
Qed.

(* base-ignoring absolute references: NO premise on the override *)
Theorem join_abs_Canon_g b input u : usv_list input -> abs_ref b input = true ->
  parse_url dbg hp hpo hd ovr (Some b) input = POk u -> Canon u.
Proof.
  intros Hu Ha Hp. rewrite (join_abs_eq dbg hp hpo hd ovr b input Ha) in Hp.
  exact (parse_Canon_g input u Hu (abs_ref_nonfile b input Ha) Hp).
Qed.
End SpG.

(* 5. the relative state, any override *)
(* path arms on a special base *)
Section RelSPg.
Variable dbg : bool.
Variable hp hpo : list N -> result host.
Variable hd : host -> list N.
Hypothesis HRT : HostRT hp hpo hd.
Hypothesis HAb : host_above hp hpo hd.
Variable ovr : option (list N -> list N).
Variables (sch Z : list N) (ue hs he : N) (hi : host_internal) (pt : option N).
Notation FRONT := ((sch ++ [58]) ++ Z).
Notation Bu X q f := (qf_url (FRONT ++ X) (nlen sch) ue hs he hi pt (nlen FRONT) q f).
Hypothesis Hsc : scheme_canon sch = true.
Hypothesis Hst : scheme_type_of sch = STSpecialNotFile.

Theorem rel_sp_out_g l c r segs last q f u : usv_list l -> inp_next l = Some (c, r) -> (c =? 63) = false -> (c =? 35) = false ->
  forallb good_seg_sp segs = true -> good_seg_sp last = true ->
  parse_relative dbg hp hpo hd ovr CUrlParser STSpecialNotFile (Bu (path_text segs last) q f) l = POk u ->
  (exists ui h pt' p' q' f', auth_ok hp hpo hd STSpecialNotFile sch ui h pt' p' q' f' /\ pth_ok_sp p'
                             /\ u = auth_url hd sch ui h pt' p' q' f')
  \/ (exists segs' last' l', usv_list l' /\ forallb good_seg_sp segs' = true /\ good_seg_sp last' = true /\
        with_query_and_fragment ovr CUrlParser STSpecialNotFile (nlen sch) ue hs he hi pt (nlen FRONT)
          (FRONT ++ path_text segs' last') (cbb_rest l') = POk u).
Proof.
  intros Hl En E63 E35 Hsg Hla H.
  destruct (rel_path_arms dbg hp hpo hd ovr STSpecialNotFile good_seg_sp eq_refl good_seg_sp_no_slash (loop_start_sp dbg)
              sch Z ue hs he hi pt l c r (Some (segs, last)) q f u Hl En E63 E35 (conj Hsg Hla) H)
    as [(l' & Hl' & Ha) | R]; [left | right; exact R].
  exact (ads_out_sp_g dbg hp hpo hd HRT HAb ovr sch l' u Hsc Hst Hl' Ha).
Qed.
End RelSPg.

Section RelG.
Variable dbg : bool.
Variable hp hpo : list N -> result host.
Variable hd : host -> list N.
Hypothesis HRT : HostRT hp hpo hd.
Hypothesis HAb : host_above hp hpo hd.
Variable ovr : option (list N -> list N).

Notation auth_ok := (auth_ok hp hpo hd).
Notation auth_url := (auth_url hd).
Notation Canon := (Canon hp hpo hd).

(* a canonical record with a special scheme is of the fourth form *)
Lemma Canon_special_inv b : Canon b -> scheme_type_of (b_scheme b) = STSpecialNotFile ->
  exists sch ui h pt p q f, auth_ok STSpecialNotFile sch ui h pt p q f /\ pth_ok_sp p /\ b = auth_url sch ui h pt p q f.
Proof.
  intros [sch P q f K | sch segs last q f K | sch ui h pt p q f K | sch ui h pt p q f K Kp] Hsp.
  - exfalso. rewrite opaque_url_qf in Hsp. destruct (opaque_pre_sch sch P) as [S1 S2].
    rewrite (b_scheme_qf _ _ _ _ _ _ _ _ q f sch S1 S2) in Hsp. rewrite (ok_ns _ _ _ _ K) in Hsp. discriminate.
  - exfalso. rewrite noauth_url_qf in Hsp. destruct (noauth_pre_sch sch (path_text segs last)) as [S1 S2].
    rewrite (b_scheme_qf _ _ _ _ _ _ _ _ q f sch S1 S2) in Hsp. rewrite (nk_ns _ _ _ _ _ K) in Hsp. discriminate.
  - exfalso. rewrite (auth_url_scheme hd), (ak_st _ _ _ _ _ _ _ _ _ _ _ K) in Hsp. discriminate.
  - exists sch, ui, h, pt, p, q, f. split; [exact K | split; [exact Kp | reflexivity]].
Qed.

(* EVERY arm of the relative state on a canonical special base, any override *)
Theorem rel_special_Canon b l u : Canon b -> scheme_type_of (b_scheme b) = STSpecialNotFile -> usv_list l ->
  parse_relative dbg hp hpo hd ovr CUrlParser STSpecialNotFile b l = POk u -> Canon u.
Proof.
  intros Cb Hsp Hl Hp.
  destruct (Canon_special_inv b Cb Hsp) as (sch & ui & h & pt & p & q & f & K & Kp & Eb).
  assert (cannot_be_a_base b = Some false) as Hcb by (rewrite Eb; exact (proj2 (auth_url_wf hp hpo hd HRT _ _ _ _ _ _ _ _ K))).
  destruct (tail_first l) eqn:Et.
  - rewrite <- Hsp in Hp.
    exact (rel_tail_Canon dbg hp hpo hd HRT ovr b l u Cb Hcb (fun se ser _ _ => pqf_out_g ovr _ se ser) Hl Et Hp).
  - unfold tail_first in Et. destruct (inp_next l) as [[c r]|] eqn:En; [|discriminate Et].
    apply orb_false_iff in Et. destruct Et as [E35 E63]. subst b.
    exact (rel_sp_path dbg hp hpo hd ovr sch ui h pt p q f l c r u K Kp
             (fun l' u' => ads_out_sp_g dbg hp hpo hd HRT HAb ovr sch l' u' (ak_sch _ _ _ _ _ _ _ _ _ _ _ K) (ak_st _ _ _ _ _ _ _ _ _ _ _ K))
             (pqf_out_g ovr STSpecialNotFile (nlen sch)) Hl En E63 E35 Hp).
Qed.
End RelG.

(* 6. joins: every scheme-less reference and same-scheme special references, any override *)
(* the references with the special (non-file) scheme of the base followed by fewer than two slashes / back-slashes:
   exactly the special non-file references abs_ref leaves out *)
Definition same_ref (b : url) (input : list N) : bool :=
  match parse_scheme CUrlParser (input_new_trim_c0 input) with
  | Some (sch, rem) =>
      match scheme_type_of sch with
      | STSpecialNotFile => (fst (inp_count_matching is_slash_or_bslash rem) <? 2) && list_eqb (b_scheme b) sch
      | _ => false
      end
  | None => false
  end.

Lemma nonfile_abs_or_same b input : nonfile_input input = true -> abs_ref b input = true \/ same_ref b input = true.
Proof.
  unfold nonfile_input, abs_ref, same_ref.
  destruct (parse_scheme CUrlParser (input_new_trim_c0 input)) as [[sch rem]|]; [|discriminate].
  destruct (scheme_type_of sch); [discriminate | | left; reflexivity]. intros _.
  destruct ((fst (inp_count_matching is_slash_or_bslash rem) <? 2) && list_eqb (b_scheme b) sch); [right | left]; reflexivity.
Qed.

Section JoinG.
Variable dbg : bool.
Variable hp hpo : list N -> result host.
Variable hd : host -> list N.
Hypothesis HRT : HostRT hp hpo hd.
Hypothesis HAb : host_above hp hpo hd.
Variable ovr : option (list N -> list N).

Notation Canon := (Canon hp hpo hd).

Lemma Canon_scheme_kind b : Canon b ->
  scheme_type_of (b_scheme b) = STNotSpecial \/ scheme_type_of (b_scheme b) = STSpecialNotFile.
Proof.
  intros Cb. pose proof (Canon_base_not_file hp hpo hd HRT b Cb) as H.
  destruct (scheme_type_of (b_scheme b)); [discriminate H | right; reflexivity | left; reflexivity].
Qed.

(* EVERY reference without a scheme against a canonical base: NO premise on the override *)
Theorem join_rel_Canon_g b input u : Canon b -> usv_list input -> rel_ref input = true ->
  parse_url dbg hp hpo hd ovr (Some b) input = POk u -> Canon u.
Proof.
  intros Cb Hu Hr Hp. destruct (Canon_scheme_kind b Cb) as [Hns | Hsp].
  - apply (join_rel_Canon dbg hp hpo hd HRT HAb ovr b input u Cb Hu Hr); [|exact Hp]. right. rewrite Hns. reflexivity.
  - pose proof (usv_trim is_c0_or_space input Hu : usv_list (input_new_trim_c0 input)) as Hl. unfold rel_ref in Hr. unfold parse_url in Hp.
    set (l := input_new_trim_c0 input) in *.
    destruct (parse_scheme CUrlParser l) as [[s0 r0]|]; [discriminate|].
    destruct (inp_starts_with_char 35 l); [exact (fragment_only_Canon hp hpo hd HRT b l u Cb Hl Hp)|].
    destruct (cannot_be_a_base b) as [[|]|]; try discriminate Hp.
    rewrite Hsp in Hp. cbn [st_is_file] in Hp.
    exact (rel_special_Canon dbg hp hpo hd HRT HAb ovr b l u Cb Hsp Hl Hp).
Qed.

(* item 1: "http:x" against an http base *)
Theorem join_same_Canon_g b input u : Canon b -> usv_list input -> same_ref b input = true ->
  parse_url dbg hp hpo hd ovr (Some b) input = POk u -> Canon u.
Proof.
  intros Cb Hu Hs Hp. unfold same_ref in Hs. unfold parse_url in Hp.
  destruct (parse_scheme CUrlParser (input_new_trim_c0 input)) as [[sch rem]|] eqn:Es; [|discriminate].
  pose proof (scheme_rem_usv input sch rem Hu Es) as Hur.
  destruct (scheme_type_of sch) eqn:Hst; try discriminate.
  unfold parse_with_scheme in Hp. rewrite Hst in Hp.
  destruct (to_u32 (nlen sch)) as [se| |]; cbn [pbind] in Hp; try discriminate.
  destruct (inp_count_matching is_slash_or_bslash rem) as [sl rm]. cbn [fst] in Hs. rewrite Hs in Hp.
  apply andb_true_iff in Hs. destruct Hs as [_ Hsch]. apply list_eqb_spec in Hsch.
  assert (scheme_type_of (b_scheme b) = STSpecialNotFile) as Hsp by (rewrite Hsch; exact Hst).
  destruct (Canon_special_inv hp hpo hd b Cb Hsp) as (sch' & ui & h & pt & p & q & f & K & Kp & Eb).
  assert (cannot_be_a_base b = Some false) as Hcb by (rewrite Eb; exact (proj2 (auth_url_wf hp hpo hd HRT _ _ _ _ _ _ _ _ K))).
  rewrite Hcb in Hp. cbn [negb passert] in Hp.
  destruct dbg; cbn [pbind] in Hp; exact (rel_special_Canon _ hp hpo hd HRT HAb ovr b rem u Cb Hsp Hur Hp).
Qed.

(* every reference with a non-file scheme, whatever the base's relation to it *)
Theorem join_nonfile_Canon_g b input u : Canon b -> usv_list input -> nonfile_input input = true ->
  parse_url dbg hp hpo hd ovr (Some b) input = POk u -> Canon u.
Proof.
  intros Cb Hu Hn Hp. destruct (nonfile_abs_or_same b input Hn) as [Ha | Hs].
  - exact (join_abs_Canon_g dbg hp hpo hd HRT HAb ovr b input u Hu Ha Hp).
  - exact (join_same_Canon_g b input u Cb Hu Hs Hp).
Qed.
End JoinG.
