(* Proofs/C02_AuthSp.v - class (iv) of DESIGN B.5: special non-file schemes (http, https, ws, wss, ftp)
   parsed without base.  Same canonical form as class (iii) with: a non-empty host parsed by Host::parse,
   the default port elided, a path that always starts with '/', no '\' in any segment (it is a
   separator), the SPECIAL_QUERY set.  Any number of '/' and '\' after the colon is accepted.
   What follows the slashes is the common part of C02_Auth.v at the type STSpecialNotFile. *)
From RU Require Import Base.Prelude Gen.Tables Model.HostT Model.UrlRecord Model.Parser Proofs.C02_Enc
  Proofs.C02_Parts Proofs.C02_Reach Proofs.C16_RT Proofs.C02_AuthParts Proofs.C02_Auth Proofs.C02_PathSp.

Definition pth_ok_sp (p : pth) : Prop :=
  match p with
  | Some (segs, last) => forallb good_seg_sp segs = true /\ good_seg_sp last = true
  | None => False
  end.

Lemma pth_ok_sp_ok p : pth_ok_sp p -> pth_ok p.
Proof. exact (pth_ok_st_ok STSpecialNotFile p). Qed.

(* the slashes after the colon *)
Lemma count_matching_usv f l : forall n rem, usv_list l -> inp_count_matching f l = (n, rem) -> usv_list rem.
Proof.
  induction l as [|c r IH]; intros n rem Hu H; cbn [inp_count_matching] in H.
  - inversion H; subst. constructor.
  - pose proof Hu as Hu0. apply usv_cons in Hu. destruct Hu as [Hc Hr].
    destruct (is_tnl c).
    + destruct (inp_count_matching f r) as [k rm] eqn:E. destruct k as [|pk].
      * inversion H; subst. exact Hu0.
      * inversion H; subst. exact (IH _ _ Hr eq_refl).
    + destruct (f c).
      * destruct (inp_count_matching f r) as [k rm] eqn:E. inversion H; subst. exact (IH _ _ Hr eq_refl).
      * inversion H; subst. exact Hu0.
Qed.

Lemma count_matching_2 X : match X with c :: _ => is_tnl c = false /\ is_slash_or_bslash c = false | [] => False end ->
  inp_count_matching is_slash_or_bslash (47 :: 47 :: X) = (2, X).
Proof.
  destruct X as [|c r]; [contradiction|]. intros [Ht Hs].
  cbn [inp_count_matching]. replace (is_tnl 47) with false by reflexivity.
  replace (is_slash_or_bslash 47) with true by reflexivity. rewrite Ht, Hs. reflexivity.
Qed.

Lemma default_port_sp sch : scheme_type_of sch = STSpecialNotFile -> exists d, default_port sch = Some d.
Proof.
  unfold scheme_type_of, default_port.
  destruct (list_eqb sch s_http); [eexists; reflexivity|]. destruct (list_eqb sch s_https); cbn [orb].
  { destruct (list_eqb sch s_ws); eexists; reflexivity. }
  destruct (list_eqb sch s_ws); [eexists; reflexivity|]. destruct (list_eqb sch s_wss); [eexists; reflexivity|].
  destruct (list_eqb sch s_ftp); [eexists; reflexivity|]. cbn [orb]. destruct (list_eqb sch s_file); discriminate.
Qed.

Section AuthSp.
Variable dbg : bool.
Variable hp hpo : list N -> result host.
Variable hd : host -> list N.
Hypothesis HOK : HostRT hp hpo hd.
Hypothesis HAb : host_above hp hpo hd.

Notation auth_ok := (auth_ok hp hpo hd).
Notation auth_url := (auth_url hd).
Notation auth_ser := (auth_ser hd).
Notation auth_front := (auth_front hd).
Notation auth_pre := (auth_pre hd).
Notation host_ok := (host_ok hp hpo hd).

Lemma host_ok_sp_ne h : host_ok STSpecialNotFile h -> h <> HDomain [] /\ host_text_ok (hd h).
Proof. intros [[_ E]|(Hne & Ht & _)]; [discriminate | split; assumption]. Qed.

Lemma front_not_slash sch ui h pt : host_ok STSpecialNotFile h -> ends_with_byte 47 (auth_front sch ui h pt) = false.
Proof. intros Hh. exact (front_not_slash_st hp hpo hd STSpecialNotFile sch ui h pt Hh eq_refl). Qed.

(* L1: everything after the slashes *)
Theorem ads_out_sp sch l u : scheme_canon sch = true -> scheme_type_of sch = STSpecialNotFile -> usv_list l ->
  after_double_slash dbg hp hpo hd None CUrlParser STSpecialNotFile (nlen sch) (sch ++ [58]) l = POk u ->
  exists ui h pt p q f, auth_ok STSpecialNotFile sch ui h pt p q f /\ pth_ok_sp p /\ u = auth_url sch ui h pt p q f.
Proof. intros Hsc Hst Hu. exact (ads_out_st dbg hp hpo hd HOK HAb None STSpecialNotFile sch l u Hsc Hst eq_refl (qf_spec_auth hd None STSpecialNotFile sch eq_refl) Hu). Qed.

Lemma plain_not_slash c : plainc true c = true -> is_tnl c = false /\ is_slash_or_bslash c = false.
Proof.
  unfold plainc, auth_delim, is_slash_or_bslash. intros H. apply andb_true_iff in H. destruct H as [H H3].
  apply andb_true_iff in H. destruct H as [H1 _]. apply negb_true_iff in H1, H3. split; [exact H1|].
  destruct (c =? 47), (c =? 92); try reflexivity; cbn in H3; try discriminate;
    destruct (c =? 63), (c =? 35); discriminate.
Qed.

Lemma rest_head ui h X : ui_ok ui -> host_ok STSpecialNotFile h ->
  match ui_text ui ++ hd h ++ X with c :: _ => is_tnl c = false /\ is_slash_or_bslash c = false | [] => False end.
Proof.
  intros Hui Hh. destruct (host_ok_sp_ne h Hh) as [_ Ht]. destruct (host_text_facts _ Ht) as [Hf _]. destruct Ht as (_ & Hnn & _).
  assert (forall u Y, clean T_USERINFO u = true -> u <> [] ->
            match u ++ Y with c :: _ => is_tnl c = false /\ is_slash_or_bslash c = false | [] => False end) as G.
  { intros u Y Hu Hne. destruct u as [|c u']; [contradiction|]. cbn [app]. apply plain_not_slash.
    pose proof (clean_ui_plain true _ Hu) as Hp. cbn [forallb] in Hp. apply andb_true_iff in Hp. tauto. }
  destruct ui as [|u|u p]; cbn [ui_ok ui_text] in *.
  - cbn [app]. destruct (hd h) as [|c t]; [contradiction|]. cbn [app]. apply plain_not_slash.
    cbn [forallb] in Hf. apply andb_true_iff in Hf. tauto.
  - destruct Hui as [Hu Hne]. rewrite <- app_assoc. apply G; assumption.
  - destruct Hui as (Hu & _ & _). destruct u as [|c u']; [cbn [app]; split; reflexivity|].
    rewrite <- app_assoc. apply G; [exact Hu | discriminate].
Qed.

(* L3 for the class *)
Theorem reparse_special_form sch ui h pt p q f : auth_ok STSpecialNotFile sch ui h pt p q f -> pth_ok_sp p ->
  parse_url dbg hp hpo hd None None (auth_ser sch ui h pt p q f) = POk (auth_url sch ui h pt p q f).
Proof.
  intros K Kps. rewrite (reparse_scheme_step dbg hp hpo hd HOK None _ _ _ _ _ _ _ _ K).
  pose proof (ads_canon_st dbg hp hpo hd HOK None _ _ _ _ _ _ _ _ K Kps eq_refl eq_refl) as Hads.
  destruct K as [Ksch Kst Kui Kh Kemp Kpt Kp Kq Kf Kb Kbq Kbf].
  unfold parse_with_scheme. rewrite Kst.
  rewrite to_u32_ok by (rewrite (front_len hd) in Kb; lia). cbn [pbind].
  rewrite count_matching_2 by (apply rest_head; assumption).
  exact Hads.
Qed.

(* L1 for the class, from the input *)
Theorem parse_special_out input sch rem u : usv_list input ->
  parse_scheme CUrlParser (input_new_trim_c0 input) = Some (sch, rem) ->
  scheme_type_of sch = STSpecialNotFile ->
  parse_url dbg hp hpo hd None None input = POk u ->
  exists ui h pt p q f, auth_ok STSpecialNotFile sch ui h pt p q f /\ pth_ok_sp p /\ u = auth_url sch ui h pt p q f.
Proof.
  intros Hu Hs Hst. unfold parse_url. rewrite Hs. unfold parse_with_scheme. rewrite Hst.
  destruct (to_u32 (nlen sch)) as [se| |] eqn:Eu; cbn [pbind]; try discriminate.
  apply to_u32_inv in Eu. destruct Eu as [-> Hb0].
  pose proof (scheme_rem_usv input sch rem Hu Hs) as Hur.
  destruct (inp_count_matching is_slash_or_bslash rem) as [n remaining] eqn:Ec.
  pose proof (count_matching_usv _ _ _ _ Hur Ec) as Hur'.
  apply ads_out_sp; [exact (parse_scheme_out _ _ _ Hs) | exact Hst | exact Hur'].
Qed.

End AuthSp.
