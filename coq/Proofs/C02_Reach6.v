(* Proofs/C02_Reach6.v - the histories of C02_Reach5.ReachC4 with the joins extended from tail references (empty,
   fragment-only, query-led) to
     - EVERY reference without a scheme (C02_JoinPath: path-absolute, path-relative, scheme-relative as well), and
     - references with their own non-file scheme that do not consult the base (C02_JoinAbs: non-special scheme;
       special scheme other than the base's, or followed by two or more slashes).
   This file has the definition of ReachC5, the step lemma canon_step_all and the example; that every ReachC5 record
   is Canon, a fixpoint of re-parsing and inside Reachable4 follows from ReachC5 being inside ReachC6
   (C02_Reach7.ReachC5_C6, ReachC5_Reachable4; Properties/C02.v C02_reach_partial5). *)
From RU Require Import Proofs.C15_Ser.
From Coq Require Import String.
From RU Require Import Base.Prelude Model.HostT Model.Host Model.UrlRecord Model.Parser Model.Setters Model.QueryPairs
  Proofs.C02_Reach Proofs.C02_AuthParts Proofs.C02_AuthMain Proofs.C02_Hist Proofs.C02_Canon Proofs.C02_JoinTail
  Proofs.C02_ReachPartial Proofs.C02_SetHostCanon Proofs.C02_Reach4 Proofs.C02_Stmt4 Proofs.C02_SetPathNoAuth
  Proofs.C02_Reach5 Proofs.C02_JoinAbs Proofs.C02_JoinPath Proofs.C02_SegmentsCanon.
Open Scope N_scope.
Open Scope list_scope.

Lemma tail_ref_rel input : tail_ref input = true -> rel_ref input = true.
Proof.
  unfold tail_ref, rel_ref. destruct (parse_scheme CUrlParser (input_new_trim_c0 input)); [discriminate | reflexivity].
Qed.

(* every operation of the model is in canon_op4, except path_segments_mut sessions *)
Lemma canon_op4_all u o : canon_op4 u o = true \/ exists ops, o = OPathSegments ops.
Proof.
  destruct o; try (left; reflexivity); try (right; eexists; reflexivity).
  destruct h; left; reflexivity.
Qed.

Section ReachC5.
Variable dbg : bool.
Variable hp hpo : list N -> result host.
Variable hd : host -> list N.
Hypothesis HOK : HostOK2 hp hpo hd.
Hypothesis HNE : host_nonempty hp hpo.

Let HRT : HostRT hp hpo hd := proj1 HOK.
Let HAb : host_above hp hpo hd := proj1 (proj2 HOK).

(* one step with ANY operation of the model outside the known step classes *)
Lemma canon_step_all u o u' : Canon hp hpo hd u -> op_args_ok o ->
  known_step3 dbg hp hpo hd u o = false -> apply_op dbg hp hpo hd u o = Some u' -> nlen (ser u') <= U32_MAX_P ->
  Canon hp hpo hd u'.
Proof using HOK HNE HRT HAb.
  intros C Ha Hk3 Ho Hb. destruct (canon_op4_all u o) as [H4 | [ops ->]].
  - exact (canon_op4_step dbg hp hpo hd HOK HNE u o u' C H4 Ha Hk3 Ho Hb).
  - pose proof (known_step3_2 dbg hp hpo hd u _ Hk3) as Hk.
    destruct (known_path_parts dbg hp hpo hd u (OPathSegments ops) eq_refl Hk) as [Hm _].
    cbn [apply_op op_args_ok] in *. destruct (option_map_fst_some _ _ Ho) as [s Es].
    exact (psm_session_Canon dbg hp hpo hd HRT u ops u' s C Ha Hm Es Hb).
Qed.

Inductive ReachC5 : url -> Prop :=
| RC5_parse ovr input u :
    usv_list input -> nonfile_input input = true -> (ovr = None \/ special_input input = false) ->
    parse_url dbg hp hpo hd ovr None input = POk u -> ReachC5 u
| RC5_join_rel ovr b input u :
    ReachC5 b -> usv_list input -> rel_ref input = true ->
    (ovr = None \/ st_is_special (scheme_type_of (b_scheme b)) = false) ->
    parse_url dbg hp hpo hd ovr (Some b) input = POk u -> ReachC5 u
| RC5_join_abs ovr b input u :
    ReachC5 b -> usv_list input -> abs_ref b input = true ->
    (ovr = None \/ special_input input = false) ->
    parse_url dbg hp hpo hd ovr (Some b) input = POk u -> ReachC5 u
| RC5_step u o u' :
    ReachC5 u -> op_args_ok o -> known_step3 dbg hp hpo hd u o = false ->
    apply_op dbg hp hpo hd u o = Some u' -> nlen (ser u') <= U32_MAX_P -> ReachC5 u'
| RC5_qpm u ops u' :
    ReachC5 u -> Forall op_ok ops -> query_pairs_session dbg u ops = Some u' ->
    nlen (ser u') <= U32_MAX_P -> ReachC5 u'.

Lemma ReachC4_C5 u : ReachC4 dbg hp hpo hd u -> ReachC5 u.
Proof.
  induction 1 as [ovr input u Hu Hn Hov Hp | ovr b input u Hr IH Hu Ht Hov Hp | u o u' Hr IH Ht Ha Hk Ho Hb
                 | u ops u' Hr IH Hops Hs Hb].
  - exact (RC5_parse ovr input u Hu Hn Hov Hp).
  - exact (RC5_join_rel ovr b input u IH Hu (tail_ref_rel input Ht) Hov Hp).
  - exact (RC5_step u o u' IH Ha Hk Ho Hb).
  - exact (RC5_qpm u ops u' IH Hops Hs Hb).
Qed.

End ReachC5.

(* non-vacuity, on the host model (idna_clean) *)
Definition m_join (b r : string) : option url :=
  match parse_url true mhp host_parse_opaque host_display None None (B b) with
  | POk bu => match parse_url true mhp host_parse_opaque host_display None (Some bu) (B r) with POk u => Some u | _ => None end
  | _ => None
  end.

(* http://h/a/b?q#f -> path_segments_mut: push(".<TAB>.") (skipped by extend(): the fix of F-C06-7), push("x/y") = http://h/a/b/x%2Fy?q#f ;
   a:/p/q -> pop, pop, push(""), push("z w") = a:/z%20w ; a://h -> extend(["a", "..", "%2e", ""]), pop_if_empty =
   a://h/a/%252e ; joins against http://h/a/b?q#f: "../c d/./e?k" = http://h/c%20d/e?k, "https:x" = https://x/ (base
   ignored), "zz:/.//p" = zz:/.//p ; each record is a fixpoint *)
Example reach5_example :
  match m_hist "http://h/a/b?q#f" [OPathSegments [PPush [46; 9; 46]; PPush (B "x/y")]] with
  | Some u => list_eqb (ser u) (B "http://h/a/b/x%2Fy?q#f") && m_fix u | None => false end = true
  /\ match m_hist "a:/p/q" [OPathSegments [PPop; PPop; PPush []; PPush (B "z w")]] with
     | Some u => list_eqb (ser u) (B "a:/z%20w") && m_fix u | None => false end = true
  /\ match m_hist "a://h" [OPathSegments [PExtend [B "a"; B ".."; B "%2e"; []]; PPopIfEmpty]] with
     | Some u => list_eqb (ser u) (B "a://h/a/%252e") && m_fix u | None => false end = true
  /\ match m_join "http://h/a/b?q#f" "../c d/./e?k" with
     | Some u => list_eqb (ser u) (B "http://h/c%20d/e?k") && m_fix u | None => false end = true
  /\ match m_join "http://h/a/b?q#f" "https:x" with
     | Some u => list_eqb (ser u) (B "https://x/") && m_fix u | None => false end = true
  /\ match m_join "http://h/a/b?q#f" "zz:/.//p" with
     | Some u => list_eqb (ser u) (B "zz:/.//p") && m_fix u | None => false end = true
  /\ rel_ref (B "../c d/./e?k") = true
  /\ match parse_url true mhp host_parse_opaque host_display None None (B "http://h/a/b?q#f") with
     | POk bu => abs_ref bu (B "https:x") && abs_ref bu (B "zz:/.//p") && negb (abs_ref bu (B "http:x")) && abs_ref bu (B "http://x")
     | _ => false end = true.
Proof. vm_compute. repeat split. Qed.
