(* Proofs/C01_EqSp.v - C01 equivalence, class "special non-file scheme, no base": http / https / ws / wss /
   ftp, any number of '/' and '\' after "scheme:", [userinfo@]host[:port], path with '/' and '\' as
   separators and dot segments, ?query (special-query set), #fragment.  The Standard's special authority
   slashes / ignore slashes, authority, host, port, path start and path states (Proofs/C01_EqSpSpec.v)
   against inp_count_matching / parse_userinfo / parse_host_and_port / parse_path_start
   (Proofs/C01_EqSpModel.v, C01_EqSpPath.v); the host functions are abstract (hp, hd on the model's
   side: Host::parse, Display; shp, shs on the Standard's: host parser, host serializer), related on the one string
   they are applied to (`host_agree_sp`). *)
From RU Require Import Base.Prelude Base.Utf8 Model.HostT Model.UrlRecord Model.Parser Model.Setters Spec.Whatwg
  Proofs.ListN Proofs.C02_Parts Proofs.C01_Tables Proofs.C08_Input Proofs.C01_EqRun Proofs.C01_EqApi
  Proofs.C01_EqRef Proofs.C01_EqAuthSpec Proofs.C01_EqAuthModel Proofs.C01_EqAuth Proofs.C01_EqClasses
  Proofs.C01_EqClasses2 Proofs.C01_EqSpSpec Proofs.C01_EqSpPath Proofs.C01_EqSpRel Proofs.C01_EqSpModel
  Proofs.C01_Override.

Lemma special_type sch : is_special_scheme sch = true -> list_eqb sch str_file = false ->
  scheme_type_of sch = STSpecialNotFile.
Proof.
  intros H Hf. rewrite <- special_schemes_are_the_standards in H. unfold scheme_type_of in *.
  destruct (list_eqb sch s_http || list_eqb sch s_https || list_eqb sch s_ws || list_eqb sch s_wss || list_eqb sch s_ftp);
    [reflexivity|].
  change s_file with str_file in *. rewrite Hf in *. discriminate H.
Qed.

Lemma starts_aes_host_s HR : starts_aes HR = true -> hss_host false HR = [].
Proof.
  destruct HR as [|c r]; [reflexivity|]. cbn [starts_aes hss_host]. intros H. unfold hss_stop. rewrite H, orb_true_r. reflexivity.
Qed.

Lemma pqf_q_clean_s l : usv_list l -> opt_clean (query_set STSpecialNotFile) (pqf_q STSpecialNotFile l).
Proof.
  intros Hu. unfold pqf_q. destruct (inp_next l) as [[c r]|] eqn:En; [|exact I].
  destruct (c =? 63); [|exact I]. cbn [opt_clean]. apply (query_of_clean STSpecialNotFile). exact (inp_next_usv l c r Hu En).
Qed.

(* the model on "scheme:" slashes "authority..." *)
Section SpClass.
Variable dbg : bool.
Variable hp hpo : list N -> result host.
Variable hd : host -> list N.
Variable shp : bool -> list N -> option spec_host.
Variable shs : spec_host -> list N.

Notation ADS l sch := (after_double_slash dbg hp hpo hd None CUrlParser STSpecialNotFile (nlen sch) (sch ++ [58]) l).

(* everything after parse_userinfo *)
Theorem model_sp_cont sch l un pw rem HR :
  usv_list l -> scheme_canon sch = true -> scheme_type_of sch = STSpecialNotFile ->
  let ser0 := auth_s0 sch in
  let u1 := mkSUrl sch un pw None None (SPList []) None None in
  (forall P : Prop, (U32_MAX_P < nlen (ser0 ++ cred_text un pw) -> P) ->
     oob P (parse_userinfo STSpecialNotFile ser0 l) (ser0 ++ cred_text un pw, nlen ser0 + nlen un, rem)) ->
  ntnl rem = HR -> usv_list rem ->
  host_agree_sp hp hd shp shs (hss_host false HR) ->
  (starts_aes (sp_path_text_of HR) = true -> spath_ok_s (path_text_s (sp_path_text_of HR)) [] [] = true) ->
  match sauth_host_g shp u1 [] false HR with
  | None => mfail (ADS l sch)
  | Some su =>
      exists u, oob (U32_MAX_P < nlen (ser u)) (ADS l sch) u
                /\ related dbg shs u su /\ nlen sch <= nlen (ser u)
  end.
Proof.
  intros Hu Hcan Hsp ser0 u1 HPU Hrem Hurem HA Hok.
  assert (exists tl, ser0 ++ cred_text un pw = sch ++ tl) as Htl.
  { exists ([58] ++ [47; 47] ++ cred_text un pw). unfold ser0, auth_s0. rewrite <- !app_assoc. reflexivity. }
  pose proof (hp_spec_s hp hpo hd shp shs sch (ser0 ++ cred_text un pw) rem u1 Hurem Hsp Htl eq_refl eq_refl) as HP.
  rewrite Hrem in HP. specialize (HP HA).
  unfold after_double_slash. change ((sch ++ [58]) ++ [47; 47]) with ser0.
  destruct (sauth_host_g shp u1 [] false HR) as [su|] eqn:Esu.
  2:{ eapply mfail_bind2; [apply (HPU True); intros _; exact I|]. cbv beta iota.
      eapply mfail_bind2 with (P := True); [apply oob_u32; intros _; exact I|]. apply mfail_bind. exact HP. }
  destruct HP as (host & sh & port & rem' & Ehp & Eshp & HhNe & Hpo & Hrem' & Hurem' & HXae & Esu' & Hends & HO).
  specialize (Hok HXae).
  unfold host_agree_sp in HA. destruct (hss_host false HR) as [|h0 hr] eqn:EHh; [contradiction HhNe; reflexivity|].
  rewrite Ehp, Eshp in HA. destruct HA as (Htxt & Hcol & Hne & Hne2 & Hsl).
  rewrite <- Hrem' in Hok.
  destruct (path_start_spec_s dbg rem' (((ser0 ++ cred_text un pw) ++ hd host) ++ port_suffix port) true Hurem' Hends Hok)
    as (segs & rest & Eps & Hurest & Hpt & Hnsl & Hsne & Htail & Hresth).
  set (q := pqf_q STSpecialNotFile rest). set (f := pqf_f rest).
  exists (auth_url sch un pw (hd host) (hi_of_host host) port (flat_map (fun s => 47 :: s) segs) q f).
  (* the host check of after_double_slash passes *)
  assert (forall b, hi_eqb (hi_of_host host) HI_None && b = false) as Echk.
  { intros b. destruct (hi_of_host host) eqn:Ehi; try reflexivity. exfalso. apply Hne. apply hi_none_iff. exact Ehi. }
  split.
  - (* the model: the canonical record, or Overflow with a serialization beyond u32 *)
    exact (ads_oob dbg hp hpo hd None shp STSpecialNotFile sch l un pw rem host port rem' segs rest HPU HO (Echk _) Eps
             Hurest Hresth eq_refl).
  - split; [|unfold auth_url; cbn [ser]; unfold auth_s0, nlen; repeat rewrite app_length; lia].
    (* related to the Standard's record *)
    assert (su = spec_auth_url sch un pw sh port segs q f) as ->.
    { rewrite Esu'. rewrite <- Hrem'. rewrite Htail; [reflexivity | reflexivity | | reflexivity | reflexivity].
      unfold is_special. cbn [su_scheme set_port set_host u1]. rewrite <- special_schemes_are_the_standards, Hsp. reflexivity. }
    apply related_auth_s. constructor.
    + exact Hcan.
    + exact Hsp.
    + exact Htxt.
    + exact Hcol.
    + intros Hh. exfalso. apply Hne. apply hi_none_iff. exact Hh.
    + intros Hh. contradiction.
    + exact Hpo.
    + exact Hpt.
    + apply pqf_q_clean_s. exact Hurest.
Qed.

(* the text l after "scheme:" and the slashes *)
Theorem model_sp sch l : usv_list l -> scheme_canon sch = true -> scheme_type_of sch = STSpecialNotFile ->
  let T := ntnl l in
  (starts_aes (sp_path_text T) = true -> spath_ok_s (path_text_s (sp_path_text T)) [] [] = true) ->
  host_agree_sp hp hd shp shs (sp_host_text T) ->
  match sauth_s shp sch T with
  | None => mfail (ADS l sch)
  | Some su =>
      exists u, oob (U32_MAX_P < nlen (ser u)) (ADS l sch) u
                /\ related dbg shs u su /\ nlen sch <= nlen (ser u)
  end.
Proof.
  intros Hu Hcan Hsp T Hc HA. unfold sp_path_text, sp_host_text in *.
  unfold sauth_s. pose proof (parse_userinfo_spec_s (auth_s0 sch) l Hu) as PU. fold T in PU.
  unfold after_at_s in *. destruct (last_at (as_part T)) as [[w h]|] eqn:Ela; cbn [fst snd] in *.
  - set (HR := h ++ as_rest T) in *.
    destruct (is_nil w && starts_aes HR) eqn:E1.
    + apply andb_true_iff in E1. destruct E1 as [_ E2].
      unfold sauth_host_g. cbv zeta. cbn [app]. rewrite (starts_aes_host_s HR E2). cbn [is_nil].
      unfold after_double_slash. change ((sch ++ [58]) ++ [47; 47]) with (auth_s0 sch). rewrite PU. exists EmptyHost. reflexivity.
    + destruct PU as (rem & Hrem & Hurem & HPU).
      set (un := encU (cr_user w)) in *. set (pw := encU (cr_pass w)) in *.
      pose proof (model_sp_cont sch l un pw rem HR Hu Hcan Hsp HPU Hrem Hurem HA Hc) as C. cbv zeta in C.
      assert (cred_of (Some w) (set_scheme empty_url sch) = mkSUrl sch un pw None None (SPList []) None None) as ->.
      { cbn [cred_of]. rewrite ac_false. unfold un, pw. rewrite !encU_upe. reflexivity. }
      exact C.
  - cbn [cred_of].
    assert (forall P : Prop, (U32_MAX_P < nlen (auth_s0 sch ++ cred_text [] []) -> P) ->
              oob P (parse_userinfo STSpecialNotFile (auth_s0 sch) l) (auth_s0 sch ++ cred_text [] [], nlen (auth_s0 sch) + nlen [], l)) as HPU.
    { intros P HP. cbn [cred_text is_nil andb] in *. rewrite app_nil_r in *. rewrite nlen_nil, N.add_0_r. apply PU. exact HP. }
    exact (model_sp_cont sch l [] [] l T Hu Hcan Hsp HPU eq_refl Hu HA Hc).
Qed.

End SpClass.

(* excluded, and only that: a ".." that would pop a drive-letter-shaped segment (finding F-C01-9: the
   model never pops it, in any scheme) - computed on the Standard's own (segment list, buffer); the test
   is applied only when the text behind host[:port] is empty or starts with '/', '\', '?', '#' (otherwise
   both sides fail in the port state whatever follows) *)
Definition sp_class_ok (T : list N) : bool :=
  negb (starts_aes (sp_path_text T)) || spath_ok_s (path_text_s (sp_path_text T)) [] [].

Definition in_class_special (input : list N) : bool :=
  match spec_scheme (spec_clean input) with
  | Some (sch, R) => is_special_scheme sch && negb (list_eqb sch str_file) && sp_class_ok (drop_sl R)
  | None => false
  end.

(* the one string the host parsers of the two sides are applied to *)
Definition class_host_text_s (input : list N) : list N :=
  match spec_scheme (spec_clean input) with
  | Some (_, R) => sp_host_text (drop_sl R)
  | None => []
  end.

Section Class.
Variable dbg : bool.
Variable hp hpo : list N -> result host.
Variable hd : host -> list N.
Variable shp : bool -> list N -> option spec_host.
Variable shs : spec_host -> list N.

(* specification side *)
(* no base, or a base whose scheme is not the scheme of the input: the base is never consulted *)
Theorem spec_special_any base input sch R :
  spec_scheme (spec_clean input) = Some (sch, R) -> is_special_scheme sch = true -> list_eqb sch str_file = false ->
  match base with Some b => list_eqb (su_scheme b) sch | None => false end = false ->
  match sauth_s shp sch (drop_sl R) with
  | Some su => spec_basic_url_parse shp input base = BDone su
  | None => exists uf, spec_basic_url_parse shp input base = BFailure uf
  end.
Proof.
  intros Hs Hspe Hnf Hb. set (inp := spec_clean input) in *.
  destruct (runs_scheme shp inp base sch R BOutOfFuel Hs) as (pre & Hin & _).
  assert (inp = ((pre ++ [58]) ++ take_sl R) ++ drop_sl R) as Hin2.
  { rewrite <- app_assoc, take_drop_sl, Hin, <- app_assoc. reflexivity. }
  assert (inp = (pre ++ [58]) ++ R) as Hin1 by (rewrite Hin, <- app_assoc; reflexivity).
  pose proof (runs_authority_s shp inp base _ (drop_sl R) sch Hin2 Hspe Hnf) as RA.
  assert (forall res, Runs shp inp base (at_pos StAuthority ((pre ++ [58]) ++ take_sl R) [] false false false
                                                 (set_scheme empty_url sch)) res ->
                      spec_basic_url_parse shp input base = res) as Hrun.
  { intros res HR. apply spec_parse_of_runs. fold inp.
    destruct (runs_scheme shp inp base sch R res Hs) as (pre2 & Hin' & K). apply K. clear K.
    assert (pre2 = pre) as -> by (rewrite Hin in Hin'; apply app_inv_tail in Hin'; symmetry; exact Hin').
    apply (runs_scheme_colon_special shp inp base pre sch R res Hin Hspe Hnf Hb).
    apply (runs_special_slashes shp inp base R (pre ++ [58]) false false false _ res Hin1). exact HR. }
  destruct (sauth_s shp sch (drop_sl R)) as [su|]; cbn [out_is] in RA.
  - apply Hrun. exact RA.
  - destruct RA as [uf K]. exists uf. apply Hrun. exact K.
Qed.

Theorem spec_special input sch R :
  spec_scheme (spec_clean input) = Some (sch, R) -> is_special_scheme sch = true -> list_eqb sch str_file = false ->
  match sauth_s shp sch (drop_sl R) with
  | Some su => spec_basic_url_parse shp input None = BDone su
  | None => exists uf, spec_basic_url_parse shp input None = BFailure uf
  end.
Proof. intros Hs Hspe Hnf. exact (spec_special_any None input sch R Hs Hspe Hnf eq_refl). Qed.

Theorem class_special input : usv_list input -> in_class_special input = true ->
  host_agree_sp hp hd shp shs (class_host_text_s input) ->
  agree_rel_strict dbg shs (parse_url dbg hp hpo hd None None input) (spec_basic_url_parse shp input None).
Proof.
  intros Hu Hc HA. unfold in_class_special, class_host_text_s in *.
  destruct (spec_scheme (spec_clean input)) as [[sch R]|] eqn:Es; [|discriminate].
  apply andb_true_iff in Hc. destruct Hc as [Hc Hok]. apply andb_true_iff in Hc. destruct Hc as [Hspe Hnf].
  apply negb_true_iff in Hnf. unfold sp_class_ok in Hok.
  pose proof (special_type sch Hspe Hnf) as Hsp.
  pose proof (spec_special input sch R Es Hspe Hnf) as HS.
  destruct (spec_scheme_input input _ _ Hu Es) as (rem & Hps & Hrem & Hur).
  pose proof (parse_scheme_out _ _ _ Hps) as Hcan.
  set (l := snd (inp_count_matching is_sl rem)).
  assert (ntnl l = drop_sl R) as Hl by (unfold l, drop_sl; rewrite <- Hrem; apply (count_matching_ntnl is_sl rem)).
  assert (usv_list l) as Hul by (apply count_matching_usv'; exact Hur).
  rewrite <- Hl in Hok, HA.
  assert (starts_aes (sp_path_text (ntnl l)) = true -> spath_ok_s (path_text_s (sp_path_text (ntnl l))) [] [] = true) as Hok'.
  { intros K. rewrite K in Hok. exact Hok. }
  pose proof (model_sp dbg hp hpo hd shp shs sch l Hul Hcan Hsp Hok' HA) as HM. cbv zeta in HM.
  rewrite Hl in HM.
  assert (parse_url dbg hp hpo hd None None input
          = (' se <~ to_u32 (nlen sch) ;; after_double_slash dbg hp hpo hd None CUrlParser STSpecialNotFile se (sch ++ [58]) l)) as Epu.
  { unfold parse_url. rewrite Hps. unfold parse_with_scheme. rewrite Hsp. unfold l.
    change is_slash_or_bslash with is_sl. destruct (inp_count_matching is_sl rem) as [n rm]. reflexivity. }
  rewrite Epu.
  destruct (sauth_s shp sch (drop_sl R)) as [su|].
  - rewrite HS. cbn [agree_rel_strict]. destruct HM as (u & HO & Rl & Hle).
    pose proof (related_href dbg shs u su Rl) as Eh. rewrite <- Eh.
    assert (oob (U32_MAX_P < nlen (ser u))
                (' se <~ to_u32 (nlen sch) ;; after_double_slash dbg hp hpo hd None CUrlParser STSpecialNotFile se (sch ++ [58]) l) u) as HO'.
    { eapply oob_bind; [apply oob_u32; intros K; lia | exact HO]. }
    destruct HO' as [[E B]|E]; [left; split; assumption | right; exists u; split; assumption].
  - destruct HS as [uf ->]. cbn [agree_rel_strict].
    destruct (to_u32 (nlen sch)) as [se| |] eqn:Eu; cbn [pbind].
    + apply to_u32_inv in Eu. destruct Eu as [-> _]. exact HM.
    + exists e. reflexivity.
    + unfold to_u32 in Eu. destruct (nlen sch <=? U32_MAX_P); discriminate Eu.
Qed.

(* a UTF-8 encoding override changes nothing (Proofs/C01_Override.v) *)
Theorem class_special_utf8 input : usv_list input -> in_class_special input = true ->
  host_agree_sp hp hd shp shs (class_host_text_s input) ->
  agree_rel_strict dbg shs (parse_url dbg hp hpo hd (Some utf8_encode) None input) (spec_basic_url_parse shp input None).
Proof. intros Hu Hc HA. rewrite parse_url_utf8_override. apply class_special; assumption. Qed.

End Class.
