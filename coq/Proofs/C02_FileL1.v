(* Proofs/C02_FileL1.v - L1 for the file path state: what Parser::parse_path produces for SchemeType::File from ANY
   input, started on a closed list of canonical segments.
   finish_inv_f: the end of a segment (dot segments with the two drive-letter refusals of pop_path /
     last_slash_can_be_removed, the normalisation of a drive-letter first segment) keeps the shape
     pre "/" seg "/" ... "/" cur  with canonical (good_seg_sp) closed segments;
   loop_drive: once the path begins with a normalised drive letter followed by '/' it does so for ever
     (the persistence lemma: pop_path never pops it);
   loop_inv_f: the loop returns the collapse (file_path_fixup) of a canonical path, or a path that begins with a
     normalised drive letter and '/' (the arm that inserts '/' after "C:" fired: F-C01-7). *)
From Coq Require Import String.
From RU Require Import Base.Prelude Gen.Tables Model.UrlRecord Model.Parser Proofs.ListN Proofs.C02_Enc
  Proofs.C02_Parts Proofs.C02_Opaque Proofs.C02_Path Proofs.C02_PathL1 Proofs.C02_PathSp Proofs.C02_File.
From RU Require Proofs.C04_PathFile.
Open Scope N_scope.
Open Scope list_scope.

Lemma alpha_seg_sweep : all_below 128 (fun a => implb (is_alpha a) (good_seg_sp [a; 58])) = true.
Proof. vm_compute. reflexivity. Qed.
Lemma alpha_lt a : is_alpha a = true -> a < 128.
Proof. unfold is_alpha, is_upper, is_lower. lia. Qed.
Lemma alpha_seg a : is_alpha a = true -> good_seg_sp [a; 58] = true.
Proof.
  intros H. pose proof (all_below_spec 128 _ alpha_seg_sweep a (alpha_lt a H)) as G. cbv beta in G.
  rewrite H in G. exact G.
Qed.

Lemma is_wdl_inv s : is_wdl s = true -> exists a b, s = [a; b] /\ is_alpha a = true.
Proof. apply is_wdl_shape. Qed.

Section FinishF.
Variable pre : list N.
Variable dbg : bool.
Notation ps := (nlen pre).
Notation Bs := (Bs pre).

(* shorten_path for the file scheme on a path that starts with '/': the "single drive letter" test never holds *)
Lemma shorten_file_pop s : (nlen s =? ps) = false -> (exists Y, nskipn ps s = 47 :: Y) ->
  shorten_path STFile ps s = pop_path STFile ps s.
Proof.
  intros Hl [Y EY]. unfold shorten_path. rewrite Hl. cbn [st_is_file andb]. rewrite EY, nwdl_slash. reflexivity.
Qed.

(* what finish_segment does to  B segs ++ cur [++ "/"]  for the file scheme *)
Lemma finish_inv_f segs cur (ews : bool) hh :
  forallb good_seg_sp segs = true -> clean T_PATH cur = true -> no_slash cur = true -> no_byte 92 cur = true ->
  exists segs' last' hh',
    finish_segment dbg STFile ps (Bs segs ++ cur ++ (if ews then [47] else [])) (nlen (Bs segs)) ews hh
    = POk (Bs segs' ++ last', hh')
    /\ forallb good_seg_sp segs' = true /\ good_seg_sp last' = true /\ (ews = true -> last' = [])
    /\ (hh' = hh \/ hh' = false).
Proof.
  intros Hsegs Hc Hns H92.
  assert (nosep STFile cur = true) as Hn by (rewrite nosep_special by reflexivity; rewrite Hns, H92; reflexivity).
  destruct (finish_inv_gen pre dbg STFile good_seg_sp eq_refl good_seg_sp_no_slash
              (fun s => good_seg_sp_of_parts STFile s eq_refl) (fun _ => alpha_seg) segs cur ews hh Hsegs Hc Hn)
    as (segs' & last' & hh' & Hf & G1 & G2 & G3 & G4).
  exists segs', last', hh'. repeat split; try assumption. destruct G4 as [E | [_ E]]; [left | right]; exact E.
Qed.

End FinishF.

(* persistence of a normalised drive letter *)
Lemma nfirstn_app_ge a b n : nlen a <= n -> nfirstn n (a ++ b) = a ++ nfirstn (n - nlen a) b.
Proof.
  intros H. unfold nfirstn, nlen in *.
  replace (N.to_nat n) with (length a + N.to_nat (n - N.of_nat (length a)))%nat by lia.
  apply firstn_app_2.
Qed.

Lemma rfind_aux_ge b l : forall i j k, j < i -> rfind_aux b l i (Some j) = Some k -> j <= k.
Proof.
  induction l as [|x r IH]; intros i j k Hj H; cbn [rfind_aux] in H.
  - inversion H. lia.
  - destruct (x =? b).
    + apply (IH (i + 1) i k) in H; lia.
    + apply (IH (i + 1) j k) in H; lia.
Qed.

Lemma ddot_58 s : is_double_dot (58 :: s) = false.
Proof. apply (C04_PathFile.not_dot_head 58 s); discriminate. Qed.
Lemma sdot_58 s : is_single_dot (58 :: s) = false.
Proof. apply (C04_PathFile.not_dot_head 58 s); discriminate. Qed.

Lemma slice_head l ss e c r seg : nskipn ss l = c :: r -> ss < e -> slice_o l ss e = Some seg -> exists seg', seg = c :: seg'.
Proof.
  intros Hs He H. unfold slice_o in H. destruct ((ss <=? e) && (e <=? nlen l)); [|discriminate H].
  inversion H. rewrite Hs. unfold nfirstn. destruct (N.to_nat (e - ss)) as [|k] eqn:Ek; [lia|]. cbn [firstn]. eexists. reflexivity.
Qed.

Section Drive.
Variable pre : list N.
Variable dbg : bool.
Variable a : N.
Hypothesis Ha : is_alpha a = true.
Notation ps := (nlen pre).
Notation loop := (parse_path_loop dbg CUrlParser STFile ps).

Definition P0 : list N := pre ++ [47; a; 58; 47].
Definition D (ser : list N) : Prop := exists X, ser = P0 ++ X.

Lemma P0_len : nlen P0 = ps + 4.
Proof. unfold P0. rewrite nlen_app. reflexivity. Qed.
Lemma D_len ser : D ser -> ps + 4 <= nlen ser.
Proof. intros [X ->]. rewrite nlen_app, P0_len. lia. Qed.
Lemma D_app ser y : D ser -> D (ser ++ y).
Proof. intros [X ->]. exists (X ++ y). rewrite app_assoc. reflexivity. Qed.
Lemma D_trunc ser n : D ser -> ps + 4 <= n -> D (nfirstn n ser).
Proof. intros [X ->] H. rewrite nfirstn_app_ge by (rewrite P0_len; lia). eexists. reflexivity. Qed.
Lemma D_skip ser : D ser -> exists X, nskipn ps ser = 47 :: a :: 58 :: 47 :: X.
Proof. intros [X ->]. unfold P0. rewrite <- app_assoc. rewrite nskipn_app_len. exists X. reflexivity. Qed.
Lemma a_not_slash : (a =? 47) = false.
Proof. unfold is_alpha, is_upper, is_lower in Ha. lia. Qed.

Lemma lscbr_P0 : last_slash_can_be_removed P0 ps = false.
Proof.
  unfold last_slash_can_be_removed. rewrite P0_len. replace (ps + 4 - 1) with (nlen (pre ++ [47; a; 58])) by (rewrite nlen_app; unfold nlen; cbn [length]; lia).
  unfold P0. change [47; a; 58; 47] with ([47; a; 58] ++ [47]). rewrite app_assoc. rewrite nfirstn_app_len.
  rewrite (rfind_app_last 47 pre [a; 58]) by (unfold no_byte; cbn [forallb]; rewrite a_not_slash; reflexivity).
  rewrite N.leb_refl. cbn [andb]. rewrite <- app_assoc. rewrite nskipn_app_len.
  unfold path_starts_with_wdl, starts_with_wdl. cbn [app]. rewrite Ha. reflexivity.
Qed.

Lemma pop_drive s s3 : D s -> pop_path STFile ps s = POk s3 -> D s3.
Proof.
  intros Hd H. pose proof (D_len s Hd) as Hl. destruct (D_skip s Hd) as [X EX].
  unfold pop_path in H. replace (ps <? nlen s) with true in H by lia. rewrite EX in H.
  unfold rfind in H. cbn [rfind_aux] in H. rewrite a_not_slash in H.
  replace (47 =? 47) with true in H by reflexivity. replace (58 =? 47) with false in H by reflexivity.
  cbn [N.add] in H.
  destruct (rfind_aux 47 X (0 + 1 + 1 + 1 + 1) (Some (0 + 1 + 1 + 1))) as [sp|] eqn:Er; [|discriminate H].
  apply rfind_aux_ge in Er; [|lia].
  destruct (st_is_file STFile && is_normalized_wdl (nskipn (ps + sp + 1) s)); inversion H; subst; [exact Hd|].
  apply D_trunc; [exact Hd | lia].
Qed.

Lemma shorten_drive s s3 : D s -> shorten_path STFile ps s = POk s3 -> D s3.
Proof.
  intros Hd H. pose proof (D_len s Hd) as Hl. destruct (D_skip s Hd) as [X EX].
  unfold shorten_path in H. replace (nlen s =? ps) with false in H by lia. rewrite EX in H.
  rewrite nwdl_head_not_alpha_f in H by reflexivity. cbn [st_is_file andb] in H. exact (pop_drive s s3 Hd H).
Qed.

(* ss, the segment start, lies behind P0 (ps + 4 <= ss) or is ps + 2: the fourth arm of parse_path_loop (arm4_drive
   below) only increments the segment start, which was ps + 1 for the segment "C:", when it inserts the '/' *)
Lemma finish_drive ser ss (ews : bool) hh s2 hh2 : D ser -> (ss = ps + 2 \/ ps + 4 <= ss) ->
  finish_segment dbg STFile ps ser ss ews hh = POk (s2, hh2) -> D s2 /\ hh2 = hh.
Proof.
  intros Hd Hss H. pose proof (D_len ser Hd) as Hl. unfold finish_segment in H.
  destruct (slice_o ser ss (if ews then nlen ser - 1 else nlen ser)) as [seg|] eqn:Es; [|discriminate H].
  cbn [of_option pbind] in H.
  destruct Hss as [Hss|Hss].
  - (* the segment text starts with the ':' of the drive letter *)
    assert (exists seg', seg = 58 :: seg') as [seg' ->].
    { apply (slice_head ser ss (if ews then nlen ser - 1 else nlen ser) 58 (47 :: nskipn (ps + 4) ser) seg); [| |exact Es].
      - destruct Hd as [X ->]. rewrite Hss. unfold P0. rewrite <- !app_assoc.
        change (pre ++ [47; a; 58; 47] ++ X) with (pre ++ [47; a] ++ 58 :: 47 :: X). rewrite !app_assoc.
        replace (ps + 2) with (nlen (pre ++ [47; a])) by (rewrite nlen_app; reflexivity).
        rewrite nskipn_app_len. f_equal. f_equal.
        replace (ps + 4) with (nlen ((pre ++ [47; a]) ++ [58; 47])) by (rewrite !nlen_app; unfold nlen; cbn [length]; lia).
        change (58 :: 47 :: X) with ([58; 47] ++ X). rewrite app_assoc. rewrite nskipn_app_len. reflexivity.
      - destruct ews; lia. }
    rewrite ddot_58, sdot_58 in H. replace (ss =? ps + 1) with false in H by lia.
    rewrite andb_false_r in H. cbn [andb] in H. inversion H; subst. split; [exact Hd | reflexivity].
  - destruct (is_double_dot seg).
    + destruct (if dbg then match (if 1 <=? ss then nnth ser (ss - 1) else None) with
                            | Some b => passert (b =? 47) | None => PPanic end else POk tt) as [[]| |]; try discriminate H.
      cbn [pbind] in H.
      set (s1 := truncate ser ss) in *.
      assert (D s1) as Hd1 by (apply D_trunc; assumption).
      set (s2' := if ends_with_byte 47 s1 && last_slash_can_be_removed s1 ps then nfirstn (nlen s1 - 1) s1 else s1) in *.
      assert (D s2') as Hd2.
      { unfold s2'. destruct (nlen s1 =? ps + 4) eqn:El.
        - assert (s1 = P0) as ->.
          { destruct Hd1 as [X EX]. rewrite EX in El. rewrite nlen_app, P0_len in El.
            destruct X as [|x X']; [rewrite EX; apply app_nil_r|]. rewrite nlen_cons in El. lia. }
          rewrite lscbr_P0, andb_false_r. exact Hd1.
        - destruct (ends_with_byte 47 s1 && last_slash_can_be_removed s1 ps); [|exact Hd1].
          apply D_trunc; [exact Hd1|]. pose proof (D_len s1 Hd1). lia. }
      destruct (shorten_path STFile ps s2') as [s3| |] eqn:Esh; try discriminate H. cbn [pbind] in H.
      pose proof (shorten_drive s2' s3 Hd2 Esh) as Hd3.
      inversion H; subst. split; [|reflexivity].
      destruct (ews && negb (ends_with_byte 47 s3)); [apply D_app|]; exact Hd3.
    + destruct (is_single_dot seg).
      * inversion H; subst. split; [|reflexivity].
        assert (D (truncate ser ss)) as Hd1 by (apply D_trunc; assumption).
        destruct (ends_with_byte 47 (truncate ser ss)); [|apply D_app]; exact Hd1.
      * replace (ss =? ps + 1) with false in H by lia. rewrite andb_false_r in H. cbn [andb] in H.
        inversion H; subst. split; [exact Hd | reflexivity].
Qed.

Lemma fixup_drive s : D s -> D (file_path_fixup STFile ps s).
Proof.
  intros [X ->]. unfold file_path_fixup. cbn [st_is_file]. unfold P0. rewrite <- app_assoc.
  rewrite nskipn_app_len, nfirstn_app_len. cbn [app drop_while].
  replace (is_slash 47) with true by reflexivity. unfold is_slash at 1. rewrite a_not_slash.
  exists X. unfold P0. rewrite <- app_assoc. reflexivity.
Qed.

(* the fourth arm of parse_path_loop - the path so far is exactly a normalised drive letter: a '/' is inserted -
   does not fire once D holds *)
Lemma arm4_drive ser : D ser -> is_normalized_wdl (nskipn (ps + 1) ser) = false.
Proof.
  intros [X ->]. unfold P0. rewrite <- app_assoc. change (pre ++ [47; a; 58; 47] ++ X) with (pre ++ [47] ++ a :: 58 :: 47 :: X).
  rewrite app_assoc. replace (ps + 1) with (nlen (pre ++ [47])) by (rewrite nlen_app; reflexivity).
  rewrite nskipn_app_len. apply nwdl_long_f.
Qed.

Theorem loop_drive l : forall ser ss pend hh s' hh' rem, usv_list l -> usv_list pend ->
  D ser -> (ss = ps + 2 \/ ps + 4 <= ss) ->
  loop l ser ss pend hh = POk (s', hh', rem) -> D s' /\ hh' = hh /\ rem = cbb_rest l.
Proof.
  assert (forall ser pend, usv_list pend -> D ser -> D (push_pending CUrlParser STFile ser pend)) as Hpush.
  { intros ser pend Hp Hd. rewrite push_pending_eq by exact Hp. apply D_app. exact Hd. }
  assert (forall l0 ser ss pend hh s' hh' rem, stops l0 -> usv_list pend -> D ser -> (ss = ps + 2 \/ ps + 4 <= ss) ->
            loop l0 ser ss pend hh = POk (s', hh', rem) -> D s' /\ hh' = hh /\ rem = l0) as Hend.
  { intros l0 ser ss pend hh s' hh' rem Hl Hp Hd Hss H. rewrite loop_stop in H by exact Hl.
    destruct (finish_segment dbg STFile ps (push_pending CUrlParser STFile ser pend) ss false hh) as [[s2 hh2]| |] eqn:Ef; try discriminate H.
    cbn [pbind] in H. inversion H; subst.
    destruct (finish_drive _ _ _ _ _ _ (Hpush ser pend Hp Hd) Hss Ef) as [Hd2 ->].
    split; [apply fixup_drive; exact Hd2 | split; reflexivity]. }
  induction l as [|c r IH]; intros ser ss pend hh s' hh' rem Hu Hp Hd Hss H.
  - exact (Hend [] ser ss pend hh s' hh' rem I Hp Hd Hss H).
  - apply usv_cons in Hu. destruct Hu as [Huc Hur]. cbn [cbb_rest].
    destruct (is_tnl c) eqn:Et.
    + rewrite loop_tnl in H by exact Et. exact (IH _ _ _ _ _ _ _ Hur (Forall_nil _) (Hpush ser pend Hp Hd) Hss H).
    + destruct (is_qh c) eqn:Eq; [exact (Hend (c :: r) ser ss pend hh s' hh' rem (conj Eq Et) Hp Hd Hss H)|].
      destruct (sep STFile c) eqn:Es.
      * rewrite loop_sep in H by assumption.
        destruct (finish_segment dbg STFile ps (push_pending CUrlParser STFile ser pend ++ [47]) ss true hh) as [[s2 hh2]| |] eqn:Ef; try discriminate H.
        cbn [pbind] in H.
        destruct (finish_drive _ _ _ _ _ _ (D_app _ [47] (Hpush ser pend Hp Hd)) Hss Ef) as [Hd2 ->].
        exact (IH _ _ _ _ _ _ _ Hur (Forall_nil _) Hd2 (or_intror (D_len s2 Hd2)) H).
      * rewrite loop_plain in H; try assumption; [|unfold drive_arm; rewrite (arm4_drive ser Hd); apply andb_false_r].
        apply (IH ser ss (c :: pend) hh s' hh' rem Hur); try assumption. apply usv_cons. split; assumption.
Qed.

End Drive.

(* the loop invariant for the file scheme *)
Lemma nwdl_segs_text_cur s r cur : is_normalized_wdl (segs_text (s :: r) ++ cur) = false.
Proof.
  unfold segs_text. cbn [map concat]. rewrite <- !app_assoc.
  destruct s as [|x [|y s']]; cbn [app].
  - apply nwdl_head_not_alpha_f. reflexivity.
  - apply nwdl_second_f. reflexivity.
  - destruct s' as [|z s'']; cbn [app]; apply nwdl_long_f.
Qed.

Section LoopInvF.
Variable pre : list N.
Variable dbg : bool.
Notation ps := (nlen pre).
Notation loop := (parse_path_loop dbg CUrlParser STFile ps).
Notation Bs := (Bs pre).

Definition good_out (hh : bool) (s' : list N) (hh' : bool) : Prop :=
  exists segs' last', s' = file_path_fixup STFile ps (Bs segs' ++ last')
    /\ forallb good_seg_sp segs' = true /\ good_seg_sp last' = true /\ (hh' = hh \/ hh' = false).
Definition drive_out (s' : list N) : Prop := exists a, is_alpha a = true /\ D pre a s'.

Lemma Bs_skip1 segs cur : nskipn (ps + 1) (Bs segs ++ cur) = segs_text segs ++ cur.
Proof.
  unfold C02_PathL1.Bs. rewrite <- !app_assoc. rewrite app_assoc.
  replace (ps + 1) with (nlen (pre ++ [47])) by (rewrite nlen_app; reflexivity).
  apply nskipn_app_len.
Qed.

Lemma good_out_hh hh hh2 s' hh' : (hh2 = hh \/ hh2 = false) -> good_out hh2 s' hh' -> good_out hh s' hh'.
Proof.
  intros H2 (segs' & last' & E & G1 & G2 & G3). exists segs', last'. repeat split; try assumption.
  destruct G3 as [->| ->]; [exact H2 | right; reflexivity].
Qed.

(* the end of a segment after the pending characters have been flushed *)
Lemma finish_flush_f segs cur pend (ews : bool) hh :
  pend_ok_sp pend -> forallb good_seg_sp segs = true -> clean T_PATH cur = true -> nosep STFile cur = true ->
  exists segs' last' hh2,
    finish_segment dbg STFile ps (push_pending CUrlParser STFile (Bs segs ++ cur) pend ++ (if ews then [47] else []))
      (nlen (Bs segs)) ews hh = POk (Bs segs' ++ last', hh2)
    /\ forallb good_seg_sp segs' = true /\ good_seg_sp last' = true /\ (ews = true -> last' = [])
    /\ (hh2 = hh \/ hh2 = false).
Proof.
  intros Hp Hsegs Hc Hn.
  destruct (finish_flush_gen pre dbg STFile good_seg_sp eq_refl good_seg_sp_no_slash
              (fun s => good_seg_sp_of_parts STFile s eq_refl) (fun _ => alpha_seg) segs cur pend ews hh
              (pend_ok_sp_sep STFile pend eq_refl Hp) Hsegs Hc Hn)
    as (segs' & last' & hh' & Hf & G1 & G2 & G3 & G4).
  exists segs', last', hh'. repeat split; try assumption. destruct G4 as [E | [_ E]]; [left | right]; exact E.
Qed.

Theorem loop_inv_f l : forall segs cur pend hh s' hh' rem, usv_list l -> pend_ok_sp pend ->
  forallb good_seg_sp segs = true -> clean T_PATH cur = true -> no_slash cur = true -> no_byte 92 cur = true ->
  (is_normalized_wdl (segs_text segs ++ cur) = true -> pend = []) ->
  loop l (Bs segs ++ cur) (nlen (Bs segs)) pend hh = POk (s', hh', rem) ->
  rem = cbb_rest l /\ (good_out hh s' hh' \/ drive_out s').
Proof.
  assert (forall cur, no_slash cur = true -> no_byte 92 cur = true -> nosep STFile cur = true) as Hnosep.
  { intros cur Hn Hb. rewrite nosep_special by reflexivity. rewrite Hn, Hb. reflexivity. }
  assert (forall l0 segs cur pend hh s' hh' rem, stops l0 ->
            pend_ok_sp pend -> forallb good_seg_sp segs = true -> clean T_PATH cur = true -> nosep STFile cur = true ->
            loop l0 (Bs segs ++ cur) (nlen (Bs segs)) pend hh = POk (s', hh', rem) ->
            rem = l0 /\ good_out hh s' hh') as Hend.
  { intros l0 segs cur pend hh s' hh' rem Hl Hp Hsegs Hc Hn H. rewrite loop_stop in H by exact Hl.
    destruct (finish_flush_f segs cur pend false hh Hp Hsegs Hc Hn) as (segs' & last' & hh2 & Hf & G1 & G2 & _ & G4).
    rewrite app_nil_r in Hf. rewrite Hf in H. cbn [pbind] in H. inversion H; subst.
    split; [reflexivity|]. exists segs', last'. repeat split; assumption. }
  induction l as [|c r IH]; intros segs cur pend hh s' hh' rem Hu Hp Hsegs Hc Hns H92 Hside H;
    pose proof (Hnosep cur Hns H92) as Hn.
  - destruct (Hend [] segs cur pend hh s' hh' rem I Hp Hsegs Hc Hn H) as [G1 G2]. split; [exact G1 | left; exact G2].
  - apply usv_cons in Hu. destruct Hu as [Huc Hur]. cbn [cbb_rest].
    destruct (is_tnl c) eqn:Et.
    + rewrite loop_tnl in H by exact Et. rewrite push_pending_eq in H by (destruct Hp; assumption).
      destruct (pend_flush_gen STFile cur pend Hc Hn (pend_ok_sp_sep STFile pend eq_refl Hp)) as [Hc' Hn'].
      rewrite (nosep_special STFile _ eq_refl) in Hn'. apply andb_true_iff in Hn'. destruct Hn' as [Hns' H92'].
      rewrite <- app_assoc in H.
      exact (IH segs _ [] hh s' hh' rem Hur pend_nil_ok Hsegs Hc' Hns' H92' (fun _ => eq_refl) H).
    + destruct (is_qh c) eqn:Eq.
      * destruct (Hend (c :: r) segs cur pend hh s' hh' rem (conj Eq Et) Hp Hsegs Hc Hn H) as [G1 G2].
        split; [exact G1 | left; exact G2].
      * destruct (sep STFile c) eqn:Es.
        -- rewrite loop_sep in H by assumption.
           destruct (finish_flush_f segs cur pend true hh Hp Hsegs Hc Hn) as (segs' & last' & hh2 & Hf & G1 & G2 & G3 & G4).
           rewrite Hf in H. cbn [pbind] in H. pose proof (G3 eq_refl) as ->.
           rewrite app_nil_r in H. rewrite <- (app_nil_r (Bs segs')) in H at 1.
           destruct (IH segs' [] [] hh2 s' hh' rem Hur pend_nil_ok G1 eq_refl eq_refl eq_refl (fun _ => eq_refl) H) as [R1 R2].
           split; [exact R1|]. destruct R2 as [R2|R2]; [left; exact (good_out_hh hh hh2 s' hh' G4 R2) | right; exact R2].
        -- destruct (drive_arm STFile ps (Bs segs ++ cur)) eqn:E4.
           ++ (* the arm that puts '/' after a drive letter *)
              rewrite loop_drive_arm in H by assumption. unfold drive_arm in E4. rewrite Bs_skip1 in E4.
              apply andb_true_iff in E4. destruct E4 as [_ E4].
              rewrite (Hside E4) in H. cbn [push_pending] in H.
              destruct segs as [|s0 sr]; [|rewrite nwdl_segs_text_cur in E4; discriminate E4].
              cbn [segs_text map concat app] in E4. destruct (C04_PathFile.nwdl_inv cur E4) as (a & -> & Ha).
              assert (D pre a ((Bs [] ++ [a; 58]) ++ [47])) as Hd.
              { exists []. unfold P0, C02_PathL1.Bs. cbn [segs_text map concat]. rewrite !app_nil_r. rewrite <- !app_assoc. reflexivity. }
              assert (nlen (Bs []) + 1 = ps + 2) as Ess.
              { unfold C02_PathL1.Bs. cbn [segs_text map concat]. rewrite app_nil_r, nlen_app. unfold nlen at 2. cbn [length]. lia. }
              assert (usv_list [c]) as Hc1 by (apply usv_cons; split; [exact Huc | constructor]).
              destruct (loop_drive pre dbg a Ha r ((Bs [] ++ [a; 58]) ++ [47]) (nlen (Bs []) + 1) [c] hh s' hh' rem
                          Hur Hc1 Hd (or_introl Ess) H) as (R1 & _ & R3).
              split; [exact R3 | right; exists a; split; assumption].
           ++ rewrite loop_plain in H by assumption.
              apply (IH segs cur (c :: pend) hh s' hh' rem Hur); try assumption.
              ** rewrite (sep_special STFile c eq_refl) in Es. apply orb_false_iff in Es. destruct Es as [E47 E92].
                 destruct Hp as (Hp1 & Hp2 & Hp3). split; [apply usv_cons; split; assumption|].
                 unfold no_byte in *. cbn [forallb]. rewrite E47, E92, Hp2, Hp3. split; reflexivity.
              ** intros Hx. unfold drive_arm in E4. rewrite Bs_skip1, Hx, andb_true_r in E4. cbn [st_is_file andb] in E4.
                 pose proof (Bs_len_ge pre segs). rewrite nlen_app in E4. lia.
Qed.

End LoopInvF.
