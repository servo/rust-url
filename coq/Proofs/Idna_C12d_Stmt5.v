(* Proofs/Idna_C12d_Stmt5.v - C12, the full statement, PROVED.
   C12_statement5 = C12_statement4 (Proofs/Idna_C12c_Stmt4.v) with ONE more sampled adapter premise, NvNoGrow
   (Proofs/Idna_C12d_Round.v: normalize_validate l = l ++ t -> t = [], sampled on the real idna_adapter as nvnogrow).
   Why the premise: for an accepted xn-- INPUT label uts46.rs decodes the label (dec), runs normalize_validate on it and
   compares the two texts with a zip that stops at the shorter one; ToUnicode then displays the NORMALISED text, while
   ToASCII writes the (lower-cased) input label.  NvNoTrunc excludes a normalised text that is a proper prefix of dec,
   nothing among the seven premises of C12_statement4 excludes a normalised text dec ++ t: for such an adapter
   ToASCII of the displayed text is the Punycode form of dec ++ t, not the input label, so clause a_of_u of
   C12_statement4 does not follow from its premises (an adapter with that behaviour must be context dependent: the
   premises NvIdem, ok_stable and NvMapFix force dec ++ t to be accepted while dec is not; no pointwise adapter grows).
   c12_5 proves all four clauses (u_of_a, a_of_u, u_idem, ui) for every accepted byte string outside Known_C12 and
   Known_C10_long; Known_C11 (excluded by the statement) is not needed. *)
From RU Require Import Base.Prelude Base.Utf8 Base.Utf8Facts Base.U32_c13 Gen.Tables Model.Punycode Model.Uts46
  Proofs.Idna_Sim Proofs.Idna_Api Proofs.Idna_Known Proofs.Idna_Hyp Proofs.Idna_Redisc Proofs.Idna_C12 Proofs.Idna_C10_Deny Proofs.Idna_C10_Prefix
  Proofs.Idna_C10_Inner Proofs.Idna_C10_Walk Proofs.Idna_C10b_Long Proofs.Idna_C10b_Stmt Proofs.Idna_WalkEnc
  Proofs.Idna_C10c_Puny Proofs.Idna_C10c_Drun Proofs.Idna_C10c_Idem Proofs.Idna_C10c_Example Proofs.Idna_C10c_Refute Proofs.Idna_C12b_Stmt3
  Proofs.Idna_C12c_UofA Proofs.Idna_C12c_Stmt4 Proofs.Idna_C12c_Round Proofs.Idna_C12d_Round Proofs.Idna_C12d_UI.

Section Statement5.
Variable A : adapter.
Variable cfg : bool.
Definition C12_statement5 : Prop :=
  AdapterOK A -> AdapterUSV A -> NvNoTrunc A -> NvIdem A -> AsciiNoMark A -> MapPrefix A -> NvMapFix A -> NvNoGrow A ->
  forall d deny hy b a,
  bytes d -> valid_deny deny -> Known_C12 A cfg d deny hy = false -> Known_C11 A cfg d deny hy = false ->
  to_ascii A cfg d deny hy DIgnore = Ok (b, a) -> Known_C10_long a = false ->
  let u := ui_text (to_unicode A cfg d deny hy) in
  (ui_text (to_unicode A cfg a deny hy) = u /\ ui_err (to_unicode A cfg a deny hy) = false) /\
  (exists b', to_ascii A cfg (utf8_encode u) deny hy DIgnore = Ok (b', a)) /\
  (ui_text (to_unicode A cfg (utf8_encode u) deny hy) = u /\ ui_err (to_unicode A cfg (utf8_encode u) deny hy) = false) /\
  (forall p, exists b', to_ascii A cfg (utf8_encode (ui_text (to_user_interface A cfg d deny hy p))) deny hy DIgnore = Ok (b', a)).
End Statement5.

(* the four clauses without the exclusion of Known_C11, with the "no error, no panic" facts of to_user_interface *)
Theorem c12_all A cfg : AdapterOK A -> AdapterUSV A -> NvNoTrunc A -> NvIdem A -> AsciiNoMark A -> MapPrefix A -> NvMapFix A ->
  NvNoGrow A ->
  forall d deny hy b a, bytes d -> valid_deny deny -> Known_C12 A cfg d deny hy = false ->
  to_ascii A cfg d deny hy DIgnore = Ok (b, a) -> Known_C10_long a = false ->
  let u := ui_text (to_unicode A cfg d deny hy) in
  (ui_text (to_unicode A cfg a deny hy) = u /\ ui_err (to_unicode A cfg a deny hy) = false) /\
  (exists b', to_ascii A cfg (utf8_encode u) deny hy DIgnore = Ok (b', a)) /\
  (ui_text (to_unicode A cfg (utf8_encode u) deny hy) = u /\ ui_err (to_unicode A cfg (utf8_encode u) deny hy) = false) /\
  (forall p, ui_err (to_user_interface A cfg d deny hy p) = false /\ ui_panics (to_user_interface A cfg d deny hy p) = false /\
     exists b', to_ascii A cfg (utf8_encode (ui_text (to_user_interface A cfg d deny hy p))) deny hy DIgnore = Ok (b', a)).
Proof.
  intros HOK HUSV HNT HNI HNM HMP HMF HNG d deny hy b a Hb Hv HK H Hlong.
  destruct (c12_round2 A cfg HOK HUSV HNT HNI HNM HMP HMF HNG d deny hy b a Hb Hv HK H Hlong) as (C1 & C2 & C3).
  cbv zeta. split; [exact C1|]. split; [exact C2|]. split; [exact C3|].
  exact (c12_ui A cfg HOK HUSV HNT HNI HNM HMP HMF HNG d deny hy b a Hb Hv HK H Hlong).
Qed.

Theorem c12_5 A cfg : C12_statement5 A cfg.
Proof.
  intros HOK HUSV HNT HNI HNM HMP HMF HNG d deny hy b a Hb Hv HK _ H Hlong.
  destruct (c12_all A cfg HOK HUSV HNT HNI HNM HMP HMF HNG d deny hy b a Hb Hv HK H Hlong) as (C1 & C2 & C3 & C4).
  cbv zeta. split; [exact C1|]. split; [exact C2|]. split; [exact C3|].
  intros p. destruct (C4 p) as (_ & _ & Hx). exact Hx.
Qed.

(* the premises are satisfiable *)
Lemma lowsan4_nogrow : NvNoGrow lowsan4.
Proof.
  intros l t H. cbn [lowsan4 normalize_validate] in H. apply (f_equal (@List.length N)) in H.
  rewrite app_length, map_length in H. destruct t; [reflexivity|]. cbn [List.length] in H. lia.
Qed.
Lemma lowsan4_premises5 :
  AdapterOK lowsan4 /\ AdapterUSV lowsan4 /\ NvNoTrunc lowsan4 /\ NvIdem lowsan4 /\ AsciiNoMark lowsan4 /\ MapPrefix lowsan4 /\
  NvMapFix lowsan4 /\ NvNoGrow lowsan4.
Proof.
  destruct lowsan4_premises as (H1 & H2 & H3 & H4 & H5 & H6 & H7).
  repeat (split; [assumption|]). exact lowsan4_nogrow.
Qed.

(* "A.XN--Bcher-KVA": an xn-- input label with upper-case letters in the prefix, the basic code units and the digits *)
Definition W_stmt5 : list N := [65; 46; 88; 78; 45; 45; 66; 99; 104; 101; 114; 45; 75; 86; 65].
Definition W_stmt5_A : list N := [97; 46; 120; 110; 45; 45; 98; 99; 104; 101; 114; 45; 107; 118; 97].   (* a.xn--bcher-kva *)
Definition W_stmt5_U : list N := [97; 46; 98; 252; 99; 104; 101; 114].                                  (* a.b<u-umlaut>cher *)
Definition even_len_policy (l tld : list N) (b : bool) : bool := N.even (len l).
Example w_c12_stmt5 :
  to_ascii lowsan4 true W_stmt5 DENY_URL HCheck DIgnore = Ok (false, W_stmt5_A) /\
  Known_C12 lowsan4 true W_stmt5 DENY_URL HCheck = false /\ Known_C11 lowsan4 true W_stmt5 DENY_URL HCheck = false /\
  PunyIn lowsan4 true W_stmt5 DENY_URL HCheck = true /\ Known_C10_long W_stmt5_A = false /\
  to_unicode lowsan4 true W_stmt5 DENY_URL HCheck = UI false W_stmt5_U false /\
  to_ascii lowsan4 true (utf8_encode W_stmt5_U) DENY_URL HCheck DIgnore = Ok (false, W_stmt5_A) /\
  to_user_interface lowsan4 true W_stmt5 DENY_URL HCheck never_unicode = UI false W_stmt5_A false /\
  to_user_interface lowsan4 true W_stmt5 DENY_URL HCheck even_len_policy = UI false W_stmt5_U false.
Proof. vm_compute. repeat split; reflexivity. Qed.
