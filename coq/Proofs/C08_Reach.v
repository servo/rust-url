(* Proofs/C08_Reach.v - the absolute law and the make_relative inverse law for the records of C02's histories
   ReachC4 (Proofs/C02_Reach5.v): parse results of non-file schemes, joins with tail references, every setter of
   canon_op4 outside the known step classes, query_pairs_mut sessions.  Every such record is Canon
   (C02_Reach5.ReachC4_Canon), hence in one of the four canonical forms nonfile_form of C08_AbsNonfile, on which
   C08_AbsNonfile.absolute_form and C08_RelAuth.relative_forms are stated. *)
From Coq Require Import String.
From RU Require Import Base.Prelude Base.Utf8 Base.Utf8Facts Model.AsciiSet Gen.Tables Model.PercentEncoding
  Model.HostT Model.Host Model.UrlRecord Model.Parser Model.Setters Model.WF Model.MakeRelative Model.KnownC08
  Proofs.ListN Proofs.C02_Reach Proofs.C02_AuthParts Proofs.C02_Hist Proofs.C02_Canon Proofs.C02_Reach3 Proofs.C02_Reach4
  Proofs.C02_Reach5 Proofs.C02_HistInst Proofs.C02_SetHostCanon Proofs.C09_Host Proofs.C08_AbsNonfile Proofs.C08_RelAuth Proofs.C08_Relative.
Open Scope N_scope.
Open Scope list_scope.

Section Reach.
Variable dbg : bool.
Variable hp hpo : list N -> result host.
Variable hd : host -> list N.
Hypothesis HOK : HostOK2 hp hpo hd.
Hypothesis HNE : host_nonempty hp hpo.

(* an absolute URL's own serialization resolves to itself against EVERY base record *)
Theorem absolute_reach u b : ReachC4 dbg hp hpo hd u ->
  parse_url dbg hp hpo hd None (Some b) (utf8_lossy (ser u)) = POk u.
Proof using HOK HNE. exact (reach4_absolute dbg hp hpo hd HOK HNE u b). Qed.

(* for Canon records of any origin *)
Theorem absolute_Canon u b : Canon hp hpo hd u ->
  parse_url dbg hp hpo hd None (Some b) (utf8_lossy (ser u)) = POk u.
Proof using HOK.
  intros H. exact (absolute_form dbg hp hpo hd (proj1 HOK) b u (Canon_nonfile_form hp hpo hd u H)).
Qed.

(* the inverse law for two Canon records *)
Theorem relative_Canon b t r : Canon hp hpo hd b -> Canon hp hpo hd t ->
  mr_ok b t = true -> make_relative dbg b t = Some (Some r) ->
  parse_url dbg hp hpo hd None (Some b) r = POk t.
Proof using HOK.
  intros Cb Ct. exact (relative_forms dbg hp hpo hd (proj1 HOK) b t r
                         (Canon_nonfile_form hp hpo hd b Cb) (Canon_nonfile_form hp hpo hd t Ct)).
Qed.

(* ... hence for two records of ReachC4 histories *)
Theorem relative_reach b t r : ReachC4 dbg hp hpo hd b -> ReachC4 dbg hp hpo hd t ->
  mr_ok b t = true -> make_relative dbg b t = Some (Some r) ->
  parse_url dbg hp hpo hd None (Some b) r = POk t.
Proof using HOK HNE.
  intros Rb Rt. exact (relative_Canon b t r (ReachC4_Canon dbg hp hpo hd HOK HNE b Rb) (ReachC4_Canon dbg hp hpo hd HOK HNE t Rt)).
Qed.

(* the result of such a join is the target, a ReachC4 record: the class is closed under the law *)
End Reach.

(* on the parser model linked with the host model: the only premise about hosts is IdnaOK *)
Theorem relative_reach_model dbg idna : IdnaOK idna -> forall b t r,
  ReachC4 dbg (host_parse idna) host_parse_opaque host_display b ->
  ReachC4 dbg (host_parse idna) host_parse_opaque host_display t ->
  mr_ok b t = true -> make_relative dbg b t = Some (Some r) ->
  parse_url dbg (host_parse idna) host_parse_opaque host_display None (Some b) r = POk t.
Proof.
  intros OK b t r. exact (relative_reach dbg _ _ _ (HostOK2_model idna OK) (host_nonempty_model idna) b t r).
Qed.

Theorem absolute_reach_model dbg idna : IdnaOK idna -> forall u b,
  ReachC4 dbg (host_parse idna) host_parse_opaque host_display u ->
  parse_url dbg (host_parse idna) host_parse_opaque host_display None (Some b) (utf8_lossy (ser u)) = POk u.
Proof.
  intros OK u b. exact (absolute_reach dbg _ _ _ (HostOK2_model idna OK) (host_nonempty_model idna) u b).
Qed.

(* non-vacuity, on the host model (idna_clean): two histories with setters, inside MR_ok *)
(* base   a://u:pw@h.x:81/p?q -> quirks hostname("example.org") -> set_path("/a/b/c")   = a://u:pw@example.org:81/a/b/c?q
   target a://u:pw@example.org:81/a/d/e -> set_fragment("f")                            = a://u:pw@example.org:81/a/d/e#f
   make_relative = "../d/e#f", and the join gives the target back; the absolute law on the base record against the
   target as base *)
Definition m_join (b : url) (r : list N) : pres url :=
  parse_url true mhp host_parse_opaque host_display None (Some b) r.

Example reach_mr_example :
  match m_hist "a://u:pw@h.x:81/p?q" [OQHostname (B "example.org"); OSetPath (B "/a/b/c")],
        m_hist "a://u:pw@example.org:81/a/d/e" [OSetFragment (Some (B "f"))] with
  | Some b, Some t =>
      list_eqb (ser b) (B "a://u:pw@example.org:81/a/b/c?q") && list_eqb (ser t) (B "a://u:pw@example.org:81/a/d/e#f")
      && mr_ok b t
      && match make_relative true b t with
         | Some (Some r) => list_eqb r (B "../d/e#f")
                            && match m_join b r with POk v => url_eqb v t | _ => false end
         | _ => false
         end
      && match m_join t (utf8_lossy (ser b)) with POk v => url_eqb v b | _ => false end
  | _, _ => false
  end = true.
Proof. vm_compute. reflexivity. Qed.
