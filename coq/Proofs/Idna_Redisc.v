(* Proofs/Idna_Redisc.v - the premise Redisc of the simulation, reduced to three elementary facts:
   map_normalize A [] = [], upper-case letters are in the deny list, and the characterisation
   XnPrefixSpec of has_punycode_prefix on ASCII text (one direction: what is accepted is a spelling of xn--).
   XnPrefixSpec holds: xn_prefix_spec of Proofs/Idna_C10_Prefix.v, where redisc_of_adapter discharges it. *)
From RU Require Import Base.Prelude Base.Utf8 Base.U32_c13 Gen.Tables Model.Punycode Model.Uts46
  Proofs.Idna_Sim Proofs.Idna_Api Proofs.Idna_Known Proofs.Idna_Hyp
  Proofs.Idna_C10_Deny Proofs.Idna_Mark Proofs.Idna_SimRun.

Definition XnPrefixSpec : Prop := forall ascii, Forall (fun b => b < 128) ascii ->
  has_punycode_prefix ascii = true ->
  exists a b r, ascii = a :: b :: 45 :: 45 :: r /\ (a = 120 \/ a = 88) /\ (b = 110 \/ b = 78).

Lemma last_opt_map (f : N -> N) l : last_opt (map f l) = option_map f (last_opt l).
Proof.
  induction l as [|x r IH]; [reflexivity|]. destruct r as [|y r']; [reflexivity|].
  change (last_opt (map f (x :: y :: r'))) with (last_opt (map f (y :: r'))).
  change (last_opt (x :: y :: r')) with (last_opt (y :: r')). exact IH.
Qed.
Lemma last_opt_in l x : last_opt l = Some x -> In x l.
Proof.
  induction l as [|y r IH]; [discriminate|]. destruct r as [|z r'].
  - cbn [last_opt]. intros H; inversion H; left; reflexivity.
  - change (last_opt (y :: z :: r')) with (last_opt (z :: r')). intros H. right. apply IH. exact H.
Qed.

Lemma apply_upper_cases deny b : b < 128 ->
  apply_upper deny b = b \/ (is_upper b = true /\ apply_upper deny b = b + 32) \/ apply_upper deny b = FFFD.
Proof.
  intros Hb. unfold apply_upper. destruct (N.land deny (N.shiftl 1 b) =? 0); [left; reflexivity|].
  unfold in_inclusive_range8. destruct ((b + 256 - 65) mod 256 <=? 90 - 65) eqn:E.
  - right; left. split; [unfold is_upper; lia|reflexivity].
  - right; right; reflexivity.
Qed.
Lemma apply_upper_upper deny b : DenyUpper deny -> is_upper b = true -> apply_upper deny b = b + 32.
Proof.
  intros HD Hb. unfold apply_upper. pose proof (HD b Hb) as H. unfold deny_member in H.
  destruct (N.land deny (N.shiftl 1 b) =? 0); [discriminate|].
  unfold in_inclusive_range8. unfold is_upper in Hb.
  replace ((b + 256 - 65) mod 256 <=? 90 - 65) with true by lia. reflexivity.
Qed.
Lemma apply_upper_ascii deny b : b < 128 -> apply_upper deny b <> FFFD -> apply_upper deny b < 128.
Proof.
  intros Hb Hn. destruct (apply_upper_cases deny b Hb) as [H|[[Hu H]|H]]; [lia| |contradiction].
  unfold is_upper in Hu. lia.
Qed.

Section Redisc.
Variable A : adapter.
Variable cfg : bool.

Lemma redisc_from_facts deny :
  map_normalize A [] = [] -> DenyUpper deny -> XnPrefixSpec ->
  forall hy db ap ascii, Forall (fun b => b < 128) ascii ->
  has_punycode_prefix ascii = true ->
  negb match last_opt ascii with Some l => l =? HYPHEN | None => false end
    && (len ascii - 4 <=? PUNYCODE_DECODE_MAX_INPUT_LENGTH) = false ->
  M heT (complexF A cfg false hy deny db false ap ascii []).
Proof.
  intros H0 HD HX hy db ap ascii Hasc Hpp Hc.
  unfold complexF. rewrite scan_mark_fffd_id. cbn [sbind orb].
  change (utf8_lossy []) with (@nil N). rewrite H0. cbn [map split1].
  set (cur := map (apply_upper deny) ascii).
  destruct (existsb is_fffd cur) eqn:Ef; [apply sublabels_M|].
  cbn [sublabels scan_mark sbind]. rewrite app_nil_r.
  apply M_bind with (hx := he2); [|intros [l h] E; cbn [he2 snd] in E; subst h; reflexivity].
  (* cur is ASCII and starts with xn-- *)
  assert (Hcur : Forall (fun c => c < 128) cur).
  { unfold cur. apply Forall_forall. intros x Hx. apply in_map_iff in Hx. destruct Hx as (b & <- & Hb).
    rewrite Forall_forall in Hasc. apply apply_upper_ascii; [apply Hasc; exact Hb|].
    intros Hq. assert (Hin : In (apply_upper deny b) cur) by (unfold cur; apply in_map; exact Hb).
    pose proof (existsb_false_in is_fffd cur _ Ef Hin) as Hf. unfold is_fffd in Hf. rewrite Hq in Hf.
    rewrite N.eqb_refl in Hf. discriminate. }
  destruct (HX ascii Hasc Hpp) as (a & b & r & -> & Ha & Hb).
  assert (Hnf : forall x, In x cur -> x <> FFFD).
  { intros x Hx Hq. pose proof (existsb_false_in is_fffd cur x Ef Hx) as Hf. unfold is_fffd in Hf. subst x.
    rewrite N.eqb_refl in Hf. discriminate. }
  assert (Hsw : starts_with cur XN_PREFIX = true).
  { unfold cur. cbn [map].
    assert (Hk : forall c, In c (a :: b :: 45 :: 45 :: r) -> is_upper c = false -> c < 128 -> apply_upper deny c = c).
    { intros c Hin Hu Hlt. destruct (apply_upper_cases deny c Hlt) as [H|[[Hu' _]|H]]; [exact H|congruence|].
      exfalso. exact (Hnf _ (in_map _ _ _ Hin) H). }
    assert (H1 : apply_upper deny a = 120).
    { destruct Ha as [-> | ->]; [apply Hk; [left; reflexivity|reflexivity|lia]|exact (apply_upper_upper deny 88 HD eq_refl)]. }
    assert (H2 : apply_upper deny b = 110).
    { destruct Hb as [-> | ->]; [apply Hk; [right; left; reflexivity|reflexivity|lia]|exact (apply_upper_upper deny 78 HD eq_refl)]. }
    assert (H3 : apply_upper deny 45 = 45) by (apply Hk; [right; right; left; reflexivity|reflexivity|lia]).
    rewrite H1, H2, H3. unfold XN_PREFIX. cbn [starts_with]. rewrite !N.eqb_refl. cbn [andb]. destruct (map (apply_upper deny) r); reflexivity. }
  unfold end_sublabel. rewrite Hsw.
  assert (Hna : existsb (fun c => negb (is_ascii_cp c)) (skipn 4 cur) = false).
  { destruct (existsb (fun c => negb (is_ascii_cp c)) (skipn 4 cur)) eqn:E; [|reflexivity].
    apply existsb_exists in E. destruct E as (x & Hx & Hq).
    assert (Hin : In x cur) by (rewrite <- (firstn_skipn 4 cur); apply in_or_app; right; exact Hx).
    rewrite Forall_forall in Hcur. specialize (Hcur x Hin). unfold is_ascii_cp in Hq. lia. }
  rewrite (scan_mark_none false _ _ false Hna). cbn [sbind]. rewrite firstn_skipn. rewrite Hna.
  destruct (last_opt cur) as [lst|] eqn:El; [|exact I].
  destruct (lst =? HYPHEN) eqn:Eh.
  - cbn [sbind].
    destruct (PUNYCODE_DECODE_MAX_INPUT_LENGTH <? len (set_last FFFD cur) - 4); cbn [sbind negb]; apply check_label_M.
  - cbn [sbind].
    destruct (PUNYCODE_DECODE_MAX_INPUT_LENGTH <? len cur - 4) eqn:El2; cbn [sbind negb]; [apply check_label_M|].
    exfalso.
    (* then the input label ended in '-', hence so does cur *)
    assert (Hlen : len cur = len (a :: b :: 45 :: 45 :: r)) by (unfold cur, len; rewrite map_length; reflexivity).
    rewrite Hlen in El2.
    replace (len (a :: b :: 45 :: 45 :: r) - 4 <=? PUNYCODE_DECODE_MAX_INPUT_LENGTH) with true in Hc by lia.
    rewrite andb_true_r in Hc. apply negb_false_iff in Hc.
    pose proof El as El0. unfold cur in El. rewrite last_opt_map in El.
    destruct (last_opt (a :: b :: 45 :: 45 :: r)) as [l0|]; [|discriminate].
    cbn [option_map] in El. inversion El as [El']. unfold HYPHEN in *. apply N.eqb_eq in Hc. subst l0.
    destruct (apply_upper_cases deny 45 ltac:(lia)) as [H|[[Hu H]|H]].
    + rewrite H in El'. subst lst. discriminate.
    + discriminate Hu.
    + apply (Hnf lst (last_opt_in cur lst El0)). congruence.
Qed.

Theorem redisc_holds deny : map_normalize A [] = [] -> DenyUpper deny -> XnPrefixSpec -> Redisc A cfg deny.
Proof. intros H0 HD HX hy db ap ascii Ha Hp Hc. exact (redisc_from_facts deny H0 HD HX hy db ap ascii Ha Hp Hc). Qed.
End Redisc.
