(* Proofs/C16_RT6Model.v - the IPv6 round trip of origins with the host functions of the host MODEL
   (Model/Host.v: Host::parse with any IDNA function, Display for Host): the two premises of rt_bracket -
   the text is bracketed, Host::parse inverts Display (C09) - hold for every IPv6 address. *)
From RU Require Import Base.Prelude Base.Utf8 Gen.Tables Model.HostT Model.Host Model.UrlRecord Model.Parser Model.Origin
  Spec.WhatwgHost Proofs.C09_V6 Proofs.C09_Wf Proofs.C09_Host Proofs.C16_Origin Proofs.ListN Proofs.C16_RT Proofs.C16_RT6 Proofs.C16_RTParsed.

Lemma lower_hex_v6c c : is_lower_hex c = true -> v6c c = true.
Proof. unfold is_lower_hex, is_digit, v6c. cbn [memb]. lia. Qed.

Lemma hex4_v6c v : v < 65536 -> forallb v6c (hex4 v) = true /\ (length (hex4 v) <= 4)%nat.
Proof.
  intros Hv. destruct (hex4_facts v Hv) as (H1 & H2 & _). split; [|exact H2].
  apply forallb_forall. intros x Hx. rewrite forallb_forall in H1. apply lower_hex_v6c. now apply H1.
Qed.

(* what Display writes between the brackets: lower-case hex digits and ':' - at most 7 characters per step *)
Lemma write_loop_chars fuel : forall segs cs ce i out, Forall (fun x => x < 65536) segs ->
  write_ipv6_loop fuel segs cs ce i = Some out -> forallb v6c out = true /\ (length out <= 7 * fuel)%nat.
Proof.
  induction fuel as [|f IH]; intros segs cs ce i out Hs H; cbn [write_ipv6_loop] in H.
  - destruct (8 <=? i)%Z; [|discriminate]. inversion H. split; [reflexivity|cbn; lia].
  - destruct (8 <=? i)%Z; [inversion H; split; [reflexivity|cbn; lia]|].
    cbv beta zeta in H.
    assert (Hpiece : forall j o,
      match nth_error segs (Z.to_nat j) with
      | None => None
      | Some v => match write_ipv6_loop f segs cs ce (j + 1)%Z with
                  | None => None
                  | Some rest => Some (hex4 v ++ (if (j <? 7)%Z then [58] else []) ++ rest)
                  end
      end = Some o -> forallb v6c o = true /\ (length o <= 5 + 7 * f)%nat).
    { intros j o Ho. destruct (nth_error segs (Z.to_nat j)) as [v|] eqn:En; [|discriminate].
      destruct (write_ipv6_loop f segs cs ce (j + 1)%Z) as [rest|] eqn:Er; [|discriminate]. inversion Ho; subst.
      apply IH in Er; [|exact Hs]. destruct Er as [R1 R2].
      assert (Hv : v < 65536) by (rewrite Forall_forall in Hs; apply Hs; eapply nth_error_In; eassumption).
      destruct (hex4_v6c v Hv) as [V1 V2].
      rewrite !forallb_app, !app_length, V1, R1. destruct (j <? 7)%Z; cbn [forallb andb length]; split; try reflexivity; lia. }
    destruct (i =? cs)%Z.
    + destruct (ce <? 8)%Z.
      * match type of H with match ?X with _ => _ end = _ => destruct X as [rest|] eqn:E end; [|discriminate].
        inversion H; subst. apply Hpiece in E. destruct E as [E1 E2].
        cbn [app forallb length]. destruct (i =? 0)%Z; cbn [app forallb length]; rewrite E1; split; try reflexivity; lia.
      * inversion H; subst. destruct (i =? 0)%Z; cbn [forallb length]; split; try reflexivity; lia.
    + apply Hpiece in H. destruct H as [E1 E2]. split; [exact E1|lia].
Qed.

(* 63 = 7 * 9: write_ipv6 runs write_ipv6_loop with fuel 9 *)
Lemma write_ipv6_chars a : Forall (fun x => x < 65536) a ->
  forallb v6c (write_ipv6 a) = true /\ (length (write_ipv6 a) <= 63)%nat.
Proof.
  intros Ha. unfold write_ipv6, write_ipv6_o. destruct (longest_zero_sequence a) as [cs ce].
  destruct (write_ipv6_loop 9 a cs ce 0%Z) as [out|] eqn:E; [|split; [reflexivity|cbn; lia]].
  apply write_loop_chars in E; [|exact Ha]. exact E.
Qed.

Lemma decimal_rev_length fuel : forall n, (length (decimal_rev fuel n) <= fuel)%nat.
Proof.
  induction fuel as [|f IH]; intros n; cbn [decimal_rev length]; [lia|].
  destruct (n / 10 =? 0); [cbn [length]; lia|]. specialize (IH (n / 10)). lia.
Qed.

(* 40 is the fuel of decimal in Model/Parser.v: decimal n = rev (decimal_rev 40 n) *)
Lemma decimal_length n : (length (decimal n) <= 40)%nat.
Proof. unfold decimal. rewrite rev_length. apply decimal_rev_length. Qed.

Lemma five_length s : In s five_schemes -> (length s <= 5)%nat.
Proof. intros H. cbn [five_schemes In] in H. destruct H as [<-|[<-|[<-|[<-|[<-|[]]]]]]; cbn; lia. Qed.

Definition rt_ipv6_model_stmt : Prop :=
  forall dbg idna ho tu s a p,
    In s five_schemes -> p <= 65535 -> length a = 8%nat -> Forall (fun x => x < 65536) a ->
    let hp := Host.host_parse idna in
    let hd := Host.host_display in
    (exists w, url_parse dbg hp ho hd (ascii_serialization hd (Tuple s (HIpv6 a) p)) = POk w
               /\ forall f k, url_origin_fuel dbg hp ho hd f k w = OOk (Tuple s (HIpv6 a) p) k)
    /\ (exists w, url_parse dbg hp ho hd (unicode_serialization hd tu (Tuple s (HIpv6 a) p)) = POk w
                  /\ forall f k, url_origin_fuel dbg hp ho hd f k w = OOk (Tuple s (HIpv6 a) p) k).

Theorem rt_ipv6_model : rt_ipv6_model_stmt.
Proof.
  intros dbg idna ho tu s a p H5 Hp Hlen Ha hp hd.
  destruct (write_ipv6_chars a Ha) as [Hc Hl].
  assert (Hfmt : host_fmt hd (HIpv6 a) = 91 :: write_ipv6 a ++ [93]) by reflexivity.
  destruct (rt_bracket dbg hp ho hd tu s (HIpv6 a) p H5 Hp) as [R1 R2].
  - exists (write_ipv6 a). split; [exact Hfmt|exact Hc].
  - reflexivity.
  - unfold hp. apply x_ok_host_parse. apply (ipv6_display_rt idna a). split; assumption.
  - cbn [ascii_serialization]. rewrite tuple_serialization_eq, Hfmt.
    pose proof (five_length s H5) as L5. pose proof (decimal_length p) as Ld.
    unfold nlen, U32_MAX_P. rewrite app_length. cbn [length]. rewrite app_length. cbn [length]. rewrite app_length. cbn [length].
    assert (length (port_suffix s p) <= 41)%nat by (unfold port_suffix; destruct (opt_eqb _ _); cbn [length]; lia).
    lia.
  - split; [exact R1|]. apply R2. intros d. discriminate.
Qed.

(* what Display and ascii_serialization (host model) write for two IPv6 addresses: [::1], and
   2001:db8:0:0:1:0:0:1, which prints compressed as [2001:db8::1:0:0:1] *)
Example ipv6_texts :
  Host.host_display (HIpv6 [0; 0; 0; 0; 0; 0; 0; 1]) = [91; 58; 58; 49; 93]
  /\ ascii_serialization Host.host_display (Tuple s_https (HIpv6 [0; 0; 0; 0; 0; 0; 0; 1]) 8443)
     = [104; 116; 116; 112; 115; 58; 47; 47; 91; 58; 58; 49; 93; 58; 56; 52; 52; 51]
  /\ ascii_serialization Host.host_display (Tuple s_http (HIpv6 [8193; 3512; 0; 0; 1; 0; 0; 1]) 80)
     = [104; 116; 116; 112; 58; 47; 47; 91; 50; 48; 48; 49; 58; 100; 98; 56; 58; 58; 49; 58; 48; 58; 48; 58; 49; 93].
Proof. vm_compute. repeat split. Qed.

(* for model_host_text: an ASCII code point that is no forbidden domain code point is plainc, and so are the
   digits and '.' *)
Lemma forbidden_plain_sweep :
  all_below 128 (fun c => Spec.forbidden_domain_code_point c || plainc c) = true.
Proof. vm_compute. reflexivity. Qed.

Lemma forbidden_plain c : c < 128 -> Spec.forbidden_domain_code_point c = false -> plainc c = true.
Proof.
  intros Hc Hf. pose proof (all_below_spec 128 _ forbidden_plain_sweep c Hc) as H. cbv beta in H.
  rewrite Hf in H. exact H.
Qed.

Lemma digit_dot_plain c : is_digit c = true \/ c = 46 -> plainc c = true.
Proof. unfold is_digit, plainc. cbn [memb]. lia. Qed.

(* an IP address that Host::parse returns: an IPv4 address is a u32, an IPv6 address eight u16 pieces *)
Lemma returned_ip_wf idna t h : host_parse_x idna t = XOk h ->
  match h with HDomain _ => True | HIpv4 a => a < 4294967296 | HIpv6 ps => wf8 ps end.
Proof.
  intros Hx. unfold host_parse_x in Hx. destruct h as [d|a|ps]; [exact I| |].
  - destruct (Host.starts_with 91 t).
    { destruct (bracketed_ok _ _ Hx) as (x & Hx' & _). discriminate Hx'. }
    destruct (idna (PercentEncoding.decode (utf8_encode t))) as [dom|]; [|discriminate].
    destruct dom as [|c dom']; [discriminate|].
    destruct (ends_in_a_number (c :: dom')); [|discriminate].
    destruct (parse_ipv4addr (c :: dom')) as [x| | |] eqn:E; cbn [xr_map] in Hx; try discriminate.
    inversion Hx; subst. eapply parse_ipv4addr_bound. exact E.
  - destruct (Host.starts_with 91 t).
    + destruct (bracketed_ok _ _ Hx) as (x & Hx' & Hw). inversion Hx'; subst. exact Hw.
    + destruct (idna (PercentEncoding.decode (utf8_encode t))) as [dom|]; [|discriminate].
      destruct dom as [|c dom']; [discriminate|].
      destruct (ends_in_a_number (c :: dom')); [|discriminate].
      destruct (parse_ipv4addr (c :: dom')); cbn [xr_map] in Hx; discriminate.
Qed.

Section ModelHosts.
Variable idna : list N -> option (list N).
Hypothesis OK : IdnaOK idna.

(* what Host::parse (host model, IDNA function satisfying IdnaOK) returns has a plain or a bracketed text,
   Display is host_fmt on it, and Host::parse reads the text back as the same host *)
Lemma model_host_text input h : Host.host_parse idna input = Ok h ->
  (plain_text (host_fmt Host.host_display h) \/ bracket_text (host_fmt Host.host_display h))
  /\ Host.host_display h = host_fmt Host.host_display h
  /\ Host.host_parse idna (host_fmt Host.host_display h) = Ok h.
Proof.
  intros H. pose proof (host_parse_ok_x _ _ _ H) as Hx.
  assert (Hfmt : Host.host_display h = host_fmt Host.host_display h) by (destruct h; reflexivity).
  split; [|split; [exact Hfmt|]].
  - destruct h as [d|a|ps].
    + left. cbn [host_fmt]. destruct (parse_domain idna input d Hx) as (_ & Hne & _). split; [exact Hne|].
      apply forallb_forall. intros c Hc. pose proof (domain_form idna OK input d Hx) as Hd.
      rewrite Forall_forall in Hd. destruct (Hd c Hc) as (H1 & _ & H3). now apply forbidden_plain.
    + left. cbn [host_fmt Host.host_display].
      pose proof (returned_ip_wf idna input _ Hx) as Ha. cbv beta iota in Ha.
      destruct (ipv4_display_digits a Ha) as (Hd & Hn & _). split; [exact Hn|].
      apply forallb_forall. intros c Hc. rewrite Forall_forall in Hd. apply digit_dot_plain. now apply Hd.
    + right. cbn [host_fmt Host.host_display].
      pose proof (returned_ip_wf idna input _ Hx) as Hw. cbv beta iota in Hw.
      destruct Hw as [_ Hw]. exists (write_ipv6 ps). split; [reflexivity|]. exact (proj1 (write_ipv6_chars ps Hw)).
  - rewrite <- Hfmt. apply x_ok_host_parse. eapply special_display_rt; eassumption.
Qed.

End ModelHosts.

(* the ASCII round trip for every tuple whose host was returned by the host model's Host::parse *)
Definition rt_host_model_stmt : Prop :=
  forall dbg idna ho s h p input,
    IdnaOK idna -> Host.host_parse idna input = Ok h ->
    In s five_schemes -> p <= 65535 ->
    nlen (ascii_serialization Host.host_display (Tuple s h p)) < U32_MAX_P ->
    exists w, url_parse dbg (Host.host_parse idna) ho Host.host_display
                (ascii_serialization Host.host_display (Tuple s h p)) = POk w
              /\ forall f k, url_origin_fuel dbg (Host.host_parse idna) ho Host.host_display f k w
                             = OOk (Tuple s h p) k.

Theorem rt_host_model : rt_host_model_stmt.
Proof.
  intros dbg idna ho s h p input OK Hh H5 Hp HB.
  destruct (model_host_text idna OK input h Hh) as ([Hpl|Hbr] & Hfmt & Hrt).
  - exact (proj1 (rt_plain dbg (Host.host_parse idna) ho Host.host_display (fun d => d) s h p H5 Hp Hpl Hfmt Hrt HB)).
  - exact (proj1 (rt_bracket dbg (Host.host_parse idna) ho Host.host_display (fun d => d) s h p H5 Hp Hbr Hfmt Hrt HB)).
Qed.

(* the ASCII half of the round trip of the property, for the parser model with the host model: the origin o
   of ANY parse result, if a tuple, serializes to a text that parses to a URL whose origin is o *)
Definition rt_parsed_model_stmt : Prop :=
  forall dbg idna ho input u c o c',
    IdnaOK idna ->
    url_parse dbg (Host.host_parse idna) ho Host.host_display input = POk u ->
    url_origin dbg (Host.host_parse idna) ho Host.host_display c u = OOk o c' -> is_tuple o = true ->
    nlen (ascii_serialization Host.host_display o) < U32_MAX_P ->
    exists w, url_parse dbg (Host.host_parse idna) ho Host.host_display (ascii_serialization Host.host_display o) = POk w
              /\ url_origin dbg (Host.host_parse idna) ho Host.host_display c' w = OOk o c'.

Theorem rt_parsed_model : rt_parsed_model_stmt.
Proof.
  intros dbg idna ho input u c o c' OK Hu Ho Ht HB.
  apply (rt_parsed dbg (Host.host_parse idna) ho Host.host_display (fun d => eq_refl) input u c o c'); try assumption.
  intros t h Hh. exact (model_host_text idna OK t h Hh).
Qed.

(* IdnaOK is satisfiable: the identity on ASCII strings without denied characters *)
Definition clean_char (c : N) : bool := (c <? 128) && negb (memb c T_HOST_IDNA_DENIED).
Definition idna_clean (bs : list N) : option (list N) := if forallb clean_char bs then Some bs else None.

Lemma digit_dot_clean_sweep : all_below 128 (fun c => negb (is_digit c || (c =? 46)) || clean_char c) = true.
Proof. vm_compute. reflexivity. Qed.

Example idna_clean_ok : IdnaOK idna_clean.
Proof.
  constructor.
  - intros bs d H. unfold idna_clean in H. destruct (forallb clean_char bs) eqn:E; inversion H; subst.
    apply Forall_forall. intros c Hc. rewrite forallb_forall in E. apply E in Hc.
    unfold clean_char in Hc. unfold dom_char_ok. apply andb_true_iff in Hc. destruct Hc as [H1 H2].
    split; [lia|]. destruct (memb c T_HOST_IDNA_DENIED); [discriminate|reflexivity].
  - intros bs d H. unfold idna_clean in *. destruct (forallb clean_char bs) eqn:E; inversion H; subst. now rewrite E.
  - intros a Ha. unfold idna_clean. destruct (ipv4_display_digits a Ha) as (Hd & _).
    replace (forallb clean_char (ipv4_display a)) with true; [reflexivity|]. symmetry.
    apply forallb_forall. intros c Hc. rewrite Forall_forall in Hd. specialize (Hd c Hc).
    assert (c < 128) as L by (destruct Hd as [Hd| ->]; [unfold is_digit in Hd|]; lia).
    pose proof (all_below_spec 128 _ digit_dot_clean_sweep c L) as S. cbv beta in S.
    destruct Hd as [Hd| ->]; [rewrite Hd in S; exact S|exact S].
Qed.
