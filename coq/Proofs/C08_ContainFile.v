(* Proofs/C08_ContainFile.v - containment for FILE bases: a reference without scheme and without two leading
   slashes never REPLACES the host of a file base - the result's host is the base's, or it is dropped (the
   drive-letter branches: F-C01-1 / F-C08-1).  Purely structural: every arm of parse_file with a base either
   copies hosti base or stores HI_None; no well-formedness premise on the base. *)
From RU Require Import Base.Prelude Base.Utf8 Base.Utf8Facts Model.AsciiSet Gen.Tables Model.PercentEncoding
  Model.HostT Model.UrlRecord Model.Parser Model.Setters Model.WF Model.KnownC08
  Proofs.ListN Proofs.C08_Input Proofs.C08_Simple Proofs.C08_Contain.

Section ContainFile.
Variables (dbg : bool) (hp hpo : list N -> result host) (hd : host -> list N).
Notation join b input := (parse_url dbg hp hpo hd None (Some b) input).

(* peel the monadic binds of a successful computation *)
Ltac peel H :=
  repeat (match type of H with
          | pbind ?X _ = POk _ => let E := fresh "E" in destruct X as [?| |] eqn:E; cbn [pbind] in H; [|discriminate H|discriminate H]
          | (let '(_, _) := ?X in _) = POk _ => destruct X
          end).

(* the one-slash arm of parse_file: the host is the base's or none *)
Ltac arm :=
  let H := fresh "H" in
  destruct (negb (starts_with_wdl_segment _));
    [destruct (base_first_segment _) as [seg|];
       [destruct (is_normalized_wdl seg); [|destruct (host_str _) as [[hs|]|]]|]|];
    cbv beta iota zeta; intros H; peel H; inversion H; cbn [hosti file_url]; auto.

Lemma wqf_hosti ovr ctx st se ue hs he hi po ps s rem u :
  with_query_and_fragment ovr ctx st se ue hs he hi po ps s rem = POk u -> hosti u = hi.
Proof. unfold with_query_and_fragment. intros H. peel H. inversion H. reflexivity. Qed.

Theorem contain_file b input u' :
  cannot_be_a_base b = Some false -> st_is_file (b_st b) = true -> contain_pre b input = true ->
  join b input = POk u' -> hosti u' = hosti b \/ hosti u' = HI_None.
Proof.
  intros Hc Hf Hcp. destruct (contain_pre_inv b input Hcp) as [Hns H2s]. rewrite ref_text_eq in Hns, H2s.
  unfold parse_url. set (l := input_new_trim_c0 input) in *.
  rewrite parse_scheme_none by exact Hns.
  destruct (inp_starts_with_char 35 l).
  { unfold fragment_only. intros H. peel H. inversion H. left. reflexivity. }
  rewrite Hc. fold (b_st b). rewrite Hf.
  unfold parse_file, inp_split_first.
  destruct (inp_next l) as [[c r]|] eqn:En.
  2:{ intros H. inversion H. left. reflexivity. }
  destruct (is_slash_or_bslash c) eqn:Esl.
  - destruct (inp_next r) as [[d r2]|] eqn:En2.
    + destruct (is_slash_or_bslash d) eqn:Esl2; [|arm].
      exfalso. destruct (inp_next_ntnl l c r En) as [E1 _]. destruct (inp_next_ntnl r d r2 En2) as [E2 _].
      rewrite E1, E2 in H2s. unfold two_leading_slashes, base_special in H2s. fold (b_st b) in H2s.
      destruct (b_st b); try discriminate Hf. unfold is_ref_slash, is_slash_or_bslash in *. cbn [st_is_special] in H2s. lia.
    + arm.
  - destruct (c =? 63).
    + intros H. peel H. inversion H. left. reflexivity.
    + destruct (c =? 35).
      * unfold fragment_only. intros H. peel H. inversion H. left. reflexivity.
      * destruct (negb (starts_with_wdl_segment l)).
        -- intros H. peel H. left. exact (wqf_hosti _ _ _ _ _ _ _ _ _ _ _ _ _ H).
        -- intros H. peel H. inversion H. right. reflexivity.
Qed.

End ContainFile.

(* non-vacuity *)
From Coq Require Import String.
From RU Require Import Proofs.C02_Reach Proofs.C08_Relative.
Open Scope string_scope.

(* the premises hold and the join succeeds; kept = the host is the base's, otherwise it was dropped *)
Definition file_contain_case (bs r : string) (kept : bool) : bool :=
  match toy_parse bs with
  | POk b =>
      wf_b b && st_is_file (b_st b) && contain_pre b (B r)
      && match cannot_be_a_base b with Some false => true | _ => false end
      && match toy_join b (B r) with
         | POk u => if kept then hi_eqb (hosti u) (hosti b) && negb (hi_eqb (hosti u) HI_None)
                    else hi_eqb (hosti u) HI_None && negb (hi_eqb (hosti b) HI_None)
         | _ => false
         end
  | _ => false
  end.

