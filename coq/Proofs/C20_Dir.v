(* Proofs/C20_Dir.v - the names over [A-Za-z0-9._-] other than "." and "..": they are plain names and
   their own reference, so the directory-join clause holds for them. *)
From RU Require Import Base.Prelude Model.AsciiSet Gen.Tables
  Model.HostT Model.Parser Model.FilePath
  Proofs.C14_Views Proofs.ListN Proofs.C20_Path
  Proofs.C20_Plain.

Lemma simple_byte_inv b : simple_name_byte b = true ->
  b < 128 /\ b <> 58 /\ b <> 124 /\ b <> 47 /\ b <> 0 /\ should_encode T_SPECIAL_PATH_SEGMENT b = false.
Proof.
  intros H. unfold simple_name_byte, is_alnum, is_alpha, is_upper, is_lower, is_digit in H.
  repeat (split; [lia|]).
  destruct (N.eq_dec b 95) as [->|Hne]; [vm_compute; reflexivity|].
  apply sps_keeps_scheme_chars. unfold is_alnum, is_alpha, is_upper, is_lower, is_digit. lia.
Qed.

Lemma simple_name_inv f : simple_name f = true ->
  f <> [] /\ Forall (fun b => simple_name_byte b = true) f /\ f <> [46] /\ f <> [46; 46].
Proof.
  unfold simple_name. intros H.
  apply andb_true_iff in H. destruct H as [H H4]. apply andb_true_iff in H. destruct H as [H H3].
  apply andb_true_iff in H. destruct H as [H1 H2]. rewrite forallb_forall in H2.
  repeat split.
  - intros ->. discriminate H1.
  - apply Forall_forall. exact H2.
  - intros ->. discriminate H3.
  - intros ->. discriminate H4.
Qed.

Lemma scheme_like_tail_no_colon f : ~ In 58 f -> scheme_like_tail f = false.
Proof.
  induction f as [|c f IH]; intros H; [reflexivity|]. cbn [scheme_like_tail].
  replace (c =? 58) with false by (symmetry; apply N.eqb_neq; intros ->; apply H; left; reflexivity).
  destruct (is_alnum c || (c =? 43) || (c =? 45) || (c =? 46)); [|reflexivity].
  apply IH. intros Hi. apply H. right. exact Hi.
Qed.

Theorem simple_is_plain f : simple_name f = true -> plain_name f = true.
Proof.
  intros H. destruct (simple_name_inv f H) as (Hne & Hall & Hd & Hdd).
  rewrite Forall_forall in Hall.
  assert (H58 : ~ In 58 f) by (intros Hi; destruct (simple_byte_inv 58 (Hall 58 Hi)) as (_ & Hx & _); congruence).
  assert (H124 : ~ In 124 f)
    by (intros Hi; destruct (simple_byte_inv 124 (Hall 124 Hi)) as (_ & _ & Hx & _); congruence).
  unfold plain_name.
  assert (H1 : negb (piece_is_empty f) = true) by (destruct f; [congruence | reflexivity]).
  assert (H2 : forallb (fun b => negb (b =? 0) && negb (b =? 47) && (b <? 256)) f = true).
  { apply forallb_forall. intros b Hb. pose proof (simple_byte_inv b (Hall b Hb)). lia. }
  assert (H3 : piece_is_dot f = false)
    by (destruct (piece_is_dot f) eqn:E; [apply piece_is_dot_spec in E; congruence | reflexivity]).
  assert (H4 : piece_is_dotdot f = false)
    by (destruct (piece_is_dotdot f) eqn:E; [apply piece_is_dotdot_spec in E; congruence | reflexivity]).
  assert (H5 : scheme_like f = false).
  { unfold scheme_like. destruct f as [|c f']; [reflexivity|].
    rewrite scheme_like_tail_no_colon; [apply andb_false_r|]. intros Hi. apply H58. right. exact Hi. }
  assert (H6 : drive_like f = false).
  { unfold drive_like. destruct f as [|a [|b [|c r]]]; try reflexivity.
    replace (b =? 58) with false by (symmetry; apply N.eqb_neq; intros ->; apply H58; right; left; reflexivity).
    replace (b =? 124) with false by (symmetry; apply N.eqb_neq; intros ->; apply H124; right; left; reflexivity).
    apply andb_false_r. }
  rewrite H1, H2, H3, H4, H5, H6. reflexivity.
Qed.

Theorem simple_name_reference f : simple_name f = true -> name_reference f = f.
Proof.
  intros H. destruct (simple_name_inv f H) as (_ & Hall & _).
  assert (Hb : bytes f).
  { eapply Forall_impl; [|exact Hall]. intros b Hs. pose proof (simple_byte_inv b Hs). unfold is_byte. lia. }
  unfold name_reference. rewrite pe_display_is_encode by exact Hb. apply encode_id_iff.
  eapply Forall_impl; [|exact Hall]. intros b Hs. apply simple_byte_inv. exact Hs.
Qed.

Section Dir.
Variable dbg : bool.
Variable host_parse : list N -> result host.
Variable host_parse_opaque : list N -> result host.
Variable host_display : host -> list N.

(* names over [A-Za-z0-9._-] other than "." and ".." *)
Theorem dir_join_simple p f :
  bytes p -> path_is_absolute p = true -> simple_name f = true ->
  exists d u q,
    from_directory_path p = FOk d
    /\ url_join dbg host_parse host_parse_opaque host_display d (name_reference f) = POk u
    /\ to_file_path dbg u = FOk q
    /\ path_components q = path_components p ++ [CNormal f]
    /\ dir_join_to_path dbg host_parse host_parse_opaque host_display p (name_reference f) = FOk q.
Proof.
  intros Hb Ha Hs.
  destruct (dir_join_plain dbg host_parse host_parse_opaque host_display p f Hb Ha (simple_is_plain f Hs))
    as (d & u & q & H1 & H2 & H3 & H4 & _ & H6).
  exists d, u, q. repeat split; assumption.
Qed.

End Dir.
