(* Proofs/C07_EqAuthClass.v - towards the second clause of C07_statement for the authority class of
   the C01 equivalence (no base, non-special scheme, "scheme://[userinfo@]host[:port][/path][?q][#f]"):
   the canonical records of Proofs/C01_EqAuth.v - auth_url on the model side, spec_auth_url on the
   Standard's - are related by corr and the Standard's one is `sane`, under auth_ok and four facts
   about the host and the username that the parsers establish (the host is the empty host on both
   sides or on neither; its text is empty only then and does not start with '@'; credentials come with
   a non-empty host; the username is userinfo-percent-encoded). *)
From RU Require Import Base.Prelude Base.Utf8 Base.Utf8Facts Model.AsciiSet Gen.Tables Model.PercentEncoding
  Model.HostT Model.UrlRecord Model.Parser Model.Setters Model.WF Model.KnownC01 Model.KnownC07 Spec.Whatwg
  Proofs.ListN Proofs.C02_Enc Proofs.C02_Parts Proofs.C02_Opaque Proofs.C02_Path Proofs.C03_WF Proofs.C06_Steps
  Proofs.C06_FragQuery Proofs.C06_Suffix Proofs.C08_Input
  Proofs.C01_Tables Proofs.C01_EqRun Proofs.C01_EqEnc Proofs.C01_EqApi Proofs.C01_EqOpaque Proofs.C01_EqRef
  Proofs.C01_EqAuthSpec Proofs.C01_EqAuthModel Proofs.C01_EqAuth
  Proofs.C07_Defs Proofs.C07_Corr Proofs.C07_EqFive Proofs.C07_EqOpaqueClass Proofs.C07_SpecProto Proofs.C07_EqSix Proofs.C07_EqRel.

Lemma list10_inv {A} (a1 a2 a3 a4 a5 a6 a7 a8 a9 a10 b1 b2 b3 b4 b5 b6 b7 b8 b9 b10 : A) :
  Some [a1; a2; a3; a4; a5; a6; a7; a8; a9; a10] = Some [b1; b2; b3; b4; b5; b6; b7; b8; b9; b10] ->
  a2 = b2 /\ a3 = b3 /\ a4 = b4 /\ a6 = b6 /\ a8 = b8.
Proof. intros H. inversion H. auto. Qed.

Section AuthCorr.
Variable dbg : bool.
Variable shs : spec_host -> list N.
Variables (sch un pw ht : list N) (hi : host_internal) (sh : spec_host) (po : option N)
          (segs : list (list N)) (q f : option (list N)).
Hypothesis K : auth_ok shs sch un pw ht hi sh po segs q f.
Hypothesis X1 : hi = HI_None <-> sh = SEmpty.
Hypothesis X2 : ht = [] -> hi = HI_None.
Hypothesis X3 : starts_with_cp 64 ht = false.
Hypothesis X4 : clean T_USERINFO un = true.
Hypothesis X5 : hi = HI_None -> un = [] /\ pw = [].

Let pt := flat_map (fun s => 47 :: s) segs.
Let u := auth_url sch un pw ht hi po pt q f.
Let su := spec_auth_url sch un pw sh po segs q f.

Theorem corr_auth : corr dbg shs u su.
Proof.
  pose proof (au_wf shs sch un pw ht hi sh po segs q f K) as W. fold pt u in W.
  pose proof (related_auth dbg shs sch un pw ht hi sh po segs q f K) as Rel. fold pt u su in Rel.
  destruct K as [Hsch Hnsp Hht Hcol Hhi Hhp Hpo Hpt Hq].
  apply related_corr_of; unfold su; cbn [spec_auth_url su_host su_port].
  - exact Rel.
  - (* the host text *)
    intros Hh. change (has_host u) with (match hi with HI_None => false | _ => true end) in Hh.
    assert (ht <> []) as Hne by (intros E; rewrite (X2 E) in Hh; discriminate Hh).
    set (s1 := auth_s0 sch ++ cred_text un pw).
    change (host_start u) with (nlen s1). change (host_end u) with (nlen (s1 ++ ht)).
    assert (ser u = s1 ++ (ht ++ port_suffix po ++ pt ++ qf_qtext q ++ qf_ftext f)) as E1.
    { change (ser u) with ((((s1 ++ ht) ++ port_suffix po) ++ pt) ++ qf_qtext q ++ qf_ftext f). rewrite <- !app_assoc. reflexivity. }
    rewrite E1, !byte_eqb_head, !starts_with_cp_app.
    destruct ht as [|a r] eqn:E; [contradiction|].
    split; [rewrite nlen_app, nlen_cons; lia|]. split; [exact Hcol | exact X3].
  - (* the username *)
    intros un0 Hun. pose proof (rel_api _ _ _ _ Rel) as Api.
    destruct (accessors_reconcatenate dbg u W)
      as (sch' & un' & pw' & hs' & pth' & q' & f' & Es & Eun & Epw & Ehs & Ept & Eq & Ef & _).
    rewrite (api_by_accessors dbg u W _ _ _ _ _ _ _ Es Eun Epw Ehs Ept Eq Ef) in Api.
    unfold api_of_parts, spec_api_list in Api. apply list10_inv in Api. destruct Api as (_ & A3 & _).
    rewrite Eun in Hun. injection Hun as <-. rewrite A3. exact X4.
  - destruct po as [p|]; [exact (Hpo p eq_refl) | exact I].
  - destruct (shs sh) as [|c r] eqn:E; [left | right; discriminate]. apply X1, X2. exact Hht.
  - intros E. injection E as ->. rewrite <- Hht. apply Hhi. apply X1. reflexivity.
Qed.

Theorem sane_auth : sane su.
Proof.
  destruct K as [Hsch Hnsp Hht Hcol Hhi Hhp Hpo Hpt Hq].
  assert (is_special_scheme sch = false) as Ens.
  { rewrite <- special_schemes_are_the_standards, Hnsp. reflexivity. }
  assert (list_eqb sch str_file = false) as Enf.
  { destruct (list_eqb sch str_file) eqn:E; [|reflexivity]. rewrite (file_is_special sch E) in Ens. discriminate Ens. }
  constructor; unfold su, cannot_have_username_password_port, is_special, includes_credentials, has_opaque_path;
    cbn [spec_auth_url su_scheme su_username su_password su_host su_port su_path host_is_null orb].
  - rewrite Enf, orb_false_r. intros He.
    assert (sh = SEmpty) as Esh by (destruct sh; try discriminate He; reflexivity).
    apply X1 in Esh. destruct (X5 Esh) as [-> ->]. rewrite (Hhp (Hhi Esh)). split; reflexivity.
  - rewrite Ens. discriminate.
  - discriminate.
Qed.

End AuthCorr.

Theorem corrS_auth dbg shs sch un pw ht hi sh po segs q f :
  auth_ok shs sch un pw ht hi sh po segs q f ->
  (hi = HI_None <-> sh = SEmpty) -> (ht = [] -> hi = HI_None) -> starts_with_cp 64 ht = false ->
  clean T_USERINFO un = true -> (hi = HI_None -> un = [] /\ pw = []) ->
  corrS dbg shs (auth_url sch un pw ht hi po (flat_map (fun s => 47 :: s) segs) q f)
                (spec_auth_url sch un pw sh po segs q f).
Proof.
  intros K X1 X2 X3 X4 X5. split.
  - exact (corr_auth dbg shs sch un pw ht hi sh po segs q f K X1 X2 X3 X4).
  - exact (sane_auth shs sch un pw ht hi sh po segs q f K X1 X4 X5).
Qed.
