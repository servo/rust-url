(* Proofs/C08_StdFile.v - the Standard-side reading of containment for FILE bases, path-relative references.
   On the transcription Spec/Whatwg.v of the basic URL parser, for a file base record and a cleaned reference without
   scheme whose first character is not '/', '\', '?', '#' and which does not start with a Windows drive letter (the
   "otherwise" branch of the file state: host, path of the base, shorten, path state): the Standard succeeds and scheme,
   username, password, host, port of its result are the base's (std_contain_file_rel_any, with the Standard's "shorten"
   in general form - shorten_f keeps a path that is a single normalized drive letter, otherwise drops the last segment;
   std_contain_file is the case where the last segment of the base path is no such drive letter).  With C01's class
   theorem C01_EqFileBase.class_file_rel_path_good the crate's join answers Overflow or a record related to the Standard's
   result, a full_base pair again, whose API strings protocol / username / password / host / hostname / port are the
   base's (std_contain_file_agree; the step from "agrees with the Standard" to "keeps the front" is std_front_transfer /
   class_front_transfer, used for every class).  No hypothesis on the host functions: no host is parsed. *)
From RU Require Import Base.Prelude Base.Utf8 Model.AsciiSet Gen.Tables Model.PercentEncoding Model.HostT Model.UrlRecord
  Model.Parser Model.WF Model.KnownC08 Model.KnownC01 Spec.Whatwg Proofs.ListN
  Proofs.C01_EqRun Proofs.C01_EqRef Proofs.C01_EqApi Proofs.C01_EqRel Proofs.C01_EqRelArms Proofs.C01_EqAsm
  Proofs.C01_EqShape Proofs.C01_EqSpSpec Proofs.C01_EqFileSpec Proofs.C01_EqFileBase Proofs.C08_Std.
Open Scope N_scope.
Open Scope list_scope.

(* the premise on the cleaned reference, decided on the text *)
Definition std_file_rel_pre (l : list N) : bool :=
  match spec_scheme l with None => true | Some _ => false end
  && match l with
     | c :: _ => negb (is_sl c) && negb (c =? 63) && negb (c =? 35) && negb (starts_with_windows_drive_letter l)
     | [] => false
     end.

Lemma file_tail_front sb P r : su_scheme sb = str_file -> spec_valid sb ->
  spec_same_front sb (file_tail (fkeep sb P) r).
Proof.
  intros Hs [_ V]. destruct (V Hs) as (E1 & E2 & E3).
  unfold file_tail, tail_url, spec_same_front, fkeep. rewrite Hs, E1, E2, E3.
  destruct (snd r) as [|c q]; [repeat split|].
  destruct (c =? 63); [|repeat split; reflexivity].
  unfold query_final, frag_opt. destruct (C01_EqRun.after_hash q); repeat split; reflexivity.
Qed.

(* C01_EqFileBase.runs_file_rel_path with the Standard's "shorten" in general form: shorten_f keeps a path that is a
   single normalized drive letter, otherwise drops the last segment *)
Section SpecFileRelAny.
Variable shp : bool -> list N -> option spec_host.
Variable inp : list N.
Variable sb : spec_url.
Hypothesis Hop : has_opaque_path sb = false.
Hypothesis Hf : list_eqb (su_scheme sb) str_file = true.

Theorem runs_file_rel_path_any c t : inp = c :: t -> spec_scheme inp = None ->
  is_sl c = false -> (c =? 63) = false -> (c =? 35) = false ->
  starts_with_windows_drive_letter inp = false ->
  Runs shp inp (Some sb) m0 (BDone (file_tail (fkeep sb (shorten_f (path_segments sb)))
                                            (spath_f inp (shorten_f (path_segments sb)) []))).
Proof.
  intros Hin Hs Esl E63 E35 Hw.
  assert (inp = [] ++ inp) as Hin0 by reflexivity.
  assert (inp <> []) as Hne by (rewrite Hin; discriminate).
  assert (su_path sb = SPList (path_segments sb)) as HP.
  { unfold path_segments. unfold has_opaque_path in Hop. destruct (su_path sb); [discriminate Hop | reflexivity]. }
  unfold is_sl in Esl. apply orb_false_iff in Esl. destruct Esl as [E47 E92].
  apply runs_no_scheme; [exact Hs|].
  eapply (runs_step_stay shp inp (Some sb) StNoScheme [] inp) with (st' := StFile) (buf' := []);
    [reflexivity | exact Hne | |].
  { rewrite (step_unfold shp inp (Some sb) _ [] inp) by reflexivity. cbn zeta.
    unfold st_no_scheme. rewrite Hop, Hf. cbn [andb negb]. reflexivity. }
  eapply (runs_step_stay shp inp (Some sb) StFile [] inp) with (st' := StPath) (buf' := [])
    (u' := fkeep sb (shorten_f (path_segments sb))); [reflexivity | exact Hne | |].
  - rewrite (step_unfold shp inp (Some sb) _ [] inp) by reflexivity. cbn zeta. rewrite Hin. cbn [hd_error tl].
    unfold st_file, base_is_file. rewrite Hf. cbn [cis]. rewrite E47, E92, E63, E35. cbn [orb].
    rewrite <- Hin, Hw. cbn [negb].
    unfold shorten_path.
    cbn [su_path su_scheme set_query set_path set_port set_host set_password set_username set_scheme empty_url m_url at_pos].
    rewrite HP.
    replace (list_eqb str_file str_file) with true by reflexivity. cbn [andb].
    unfold shorten_f.
    destruct (path_segments sb) as [|p0 [|p1 P']] eqn:EP.
    + reflexivity.
    + destruct (is_normalized_windows_drive_letter p0); reflexivity.
    + reflexivity.
  - exact (runs_path_f shp inp (Some sb) inp [] [] false false false (fkeep sb (shorten_f (path_segments sb)))
             (shorten_f (path_segments sb)) Hin0 eq_refl eq_refl).
Qed.
End SpecFileRelAny.

(* the Standard alone; the path of the result in closed form *)
Theorem std_contain_file_rel_any shp input sb : spec_valid sb -> has_opaque_path sb = false ->
  list_eqb (su_scheme sb) str_file = true -> std_file_rel_pre (spec_clean input) = true ->
  exists su, spec_basic_url_parse shp input (Some sb) = BDone su /\ spec_same_front sb su
    /\ su = file_tail (fkeep sb (shorten_f (path_segments sb)))
                      (spath_f (spec_clean input) (shorten_f (path_segments sb)) []).
Proof.
  intros V Hop Hf Hpre. unfold std_file_rel_pre in Hpre. apply andb_true_iff in Hpre. destruct Hpre as [Hsch Hc].
  assert (spec_scheme (spec_clean input) = None) as Hs by (destruct (spec_scheme (spec_clean input)); [discriminate | reflexivity]).
  destruct (spec_clean input) as [|c t] eqn:Ecl; [discriminate Hc|].
  apply andb_true_iff in Hc. destruct Hc as [Hc Hw]. apply andb_true_iff in Hc. destruct Hc as [Hc E35].
  apply andb_true_iff in Hc. destruct Hc as [Esl E63]. apply negb_true_iff in Esl, E63, E35, Hw.
  eexists. split; [|split; [|reflexivity]].
  - apply spec_parse_of_runs. rewrite Ecl.
    exact (runs_file_rel_path_any shp (c :: t) sb Hop Hf c t eq_refl Hs Esl E63 E35 Hw).
  - apply file_tail_front; [apply list_eqb_spec; exact Hf | exact V].
Qed.

(* a fortiori when the last segment of the base path is not a normalized drive letter *)
Theorem std_contain_file shp input sb : spec_valid sb -> has_opaque_path sb = false ->
  list_eqb (su_scheme sb) str_file = true -> last_not_nwdl (path_segments sb) = true ->
  std_file_rel_pre (spec_clean input) = true ->
  exists su, spec_basic_url_parse shp input (Some sb) = BDone su /\ spec_same_front sb su.
Proof.
  intros V Hop Hf _ Hpre. destruct (std_contain_file_rel_any shp input sb V Hop Hf Hpre) as (su & HS & HF & _).
  exists su. split; assumption.
Qed.

(* the class of C01's theorem is inside the premise *)
Lemma in_class_file_rel_pre sb input : in_class_file_rel_path sb input = true ->
  has_opaque_path sb = false /\ list_eqb (su_scheme sb) str_file = true /\ last_not_nwdl (path_segments sb) = true
  /\ std_file_rel_pre (spec_clean input) = true.
Proof.
  intros Hc. unfold in_class_file_rel_path in Hc.
  apply andb_true_iff in Hc. destruct Hc as [Hc Hok]. apply andb_true_iff in Hc. destruct Hc as [Hb Hsch].
  destruct (file_base_ok_facts sb Hb) as (Hop & Hsf & _ & _ & Hlast).
  split; [exact Hop|]. split; [apply list_eqb_spec; exact Hsf|]. split; [exact Hlast|].
  unfold std_file_rel_pre. rewrite Hsch. cbn [andb].
  destruct (spec_clean input) as [|c t]; [discriminate Hok|].
  apply andb_true_iff in Hok. destruct Hok as [Hok _]. apply andb_true_iff in Hok. destruct Hok as [Hok _]. exact Hok.
Qed.

(* the six API strings in front of the path *)
Definition api_front (L : list (list N)) : list (list N) :=
  match L with [_; pr; un; pw; h; hn; po; _; _; _] => [pr; un; pw; h; hn; po] | _ => [] end.

Lemma spec_front_api shs sb su : spec_same_front sb su ->
  api_front (spec_api_list shs su) = api_front (spec_api_list shs sb).
Proof.
  intros (E1 & E2 & E3 & E4 & E5).
  unfold spec_api_list, api_front, get_protocol, get_username, get_password, get_host, get_hostname, get_port.
  rewrite E1, E2, E3, E4, E5. reflexivity.
Qed.

Section AgreeFile.
Variable dbg : bool.
Variable hp hpo : list N -> result host.
Variable hd : host -> list N.
Variable shp : bool -> list N -> option spec_host.
Variable shs : spec_host -> list N.

(* wherever the crate agrees with the Standard (agree_good: the conclusion of every class theorem of C01) and the Standard
   keeps the front: the model answers Overflow or a related record whose six front API strings are the base's *)
Theorem std_front_transfer b sb su input : related dbg shs b sb ->
  spec_basic_url_parse shp input (Some sb) = BDone su -> spec_same_front sb su ->
  agree_good dbg shs (parse_url dbg hp hpo hd None (Some b) input) (spec_basic_url_parse shp input (Some sb)) ->
  spec_base_ok su = true
  /\ ((parse_url dbg hp hpo hd None (Some b) input = PErr Overflow /\ U32_MAX_P < nlen (get_href shs su))
      \/ exists u', parse_url dbg hp hpo hd None (Some b) input = POk u' /\ related dbg shs u' su
                    /\ option_map api_front (api_of_model dbg u') = option_map api_front (api_of_model dbg b)).
Proof.
  intros R HS HF A. rewrite HS in A. cbn [agree_good] in A. destruct A as [Hbo [[E L]|(u' & E & Ru)]].
  - split; [exact Hbo|]. left. split; assumption.
  - split; [exact Hbo|]. right. exists u'. split; [exact E|]. split; [exact Ru|].
    rewrite (rel_api _ _ _ _ Ru), (rel_api _ _ _ _ R). cbn [option_map]. rewrite (spec_front_api shs sb su HF). reflexivity.
Qed.

(* the same from both halves of a class theorem: the results are a full_base pair again *)
Lemma class_front_transfer b sb su input : related dbg shs b sb ->
  spec_basic_url_parse shp input (Some sb) = BDone su -> spec_same_front sb su ->
  agree_good dbg shs (parse_url dbg hp hpo hd None (Some b) input) (spec_basic_url_parse shp input (Some sb))
  /\ (forall su u, spec_basic_url_parse shp input (Some sb) = BDone su ->
        parse_url dbg hp hpo hd None (Some b) input = POk u -> full_base dbg shs u su) ->
  spec_base_ok su = true
  /\ ((parse_url dbg hp hpo hd None (Some b) input = PErr Overflow /\ U32_MAX_P < nlen (get_href shs su))
      \/ exists u', parse_url dbg hp hpo hd None (Some b) input = POk u' /\ related dbg shs u' su
                    /\ full_base dbg shs u' su
                    /\ option_map api_front (api_of_model dbg u') = option_map api_front (api_of_model dbg b)).
Proof.
  intros R HS HF [A FB]. destruct (std_front_transfer b sb su input R HS HF A) as (Hok & K).
  split; [exact Hok|]. destruct K as [K|(u' & E & Ru & Hapi)]; [left; exact K|].
  right. exists u'. split; [exact E|]. split; [exact Ru|]. split; [exact (FB su u' HS E) | exact Hapi].
Qed.

Theorem std_contain_file_agree b sb input : usv_list input -> related dbg shs b sb -> spec_base_ok sb = true ->
  in_class_file_rel_path sb input = true ->
  exists su, spec_basic_url_parse shp input (Some sb) = BDone su /\ spec_same_front sb su
    /\ ((parse_url dbg hp hpo hd None (Some b) input = PErr Overflow /\ U32_MAX_P < nlen (get_href shs su))
        \/ exists u', parse_url dbg hp hpo hd None (Some b) input = POk u' /\ related dbg shs u' su
                      /\ full_base dbg shs u' su
                      /\ option_map api_front (api_of_model dbg u') = option_map api_front (api_of_model dbg b)).
Proof.
  intros Hu R Hbok Hc.
  destruct (in_class_file_rel_pre sb input Hc) as (Hop & Hf & Hlast & Hpre).
  destruct (std_contain_file shp input sb (rel_valid _ _ _ _ R) Hop Hf Hlast Hpre) as (su & HS & HF).
  exists su. split; [exact HS|]. split; [exact HF|].
  exact (proj2 (class_front_transfer b sb su input R HS HF
                  (class_file_rel_path_good dbg hp hpo hd shp shs input b sb Hu R Hbok Hc))).
Qed.
End AgreeFile.

(* non-vacuity: base = the parse results of file://h.x/tmp/dir/x?q#f on both sides; five references of the
   class; the Standard's result keeps scheme and host and its href is the model's serialization *)
From RU Require Import Model.Host Proofs.C09_Host Spec.WhatwgHostParse.
Definition std_file_case (base : list N) (refs : list (list N)) : bool :=
  let idna := ex_idna_clean in
  match parse_url true (host_parse idna) host_parse_opaque host_display None None base,
        spec_basic_url_parse (spec_host_parser idna) base None with
  | POk b, BDone sb =>
      spec_base_ok sb
      && forallb (fun r =>
           in_class_file_rel_path sb r
           && match spec_basic_url_parse (spec_host_parser idna) r (Some sb),
                    parse_url true (host_parse idna) host_parse_opaque host_display None (Some b) r with
              | BDone su, POk u' =>
                  list_eqb (su_scheme su) (su_scheme sb)
                  && list_eqb (get_hostname spec_host_serializer su) (get_hostname spec_host_serializer sb)
                  && list_eqb (get_href spec_host_serializer su) (ser u')
              | _, _ => false
              end) refs
  | _, _ => false
  end.

From Coq Require Import String.
From RU Require Import Proofs.C02_Reach.
Open Scope string_scope.
