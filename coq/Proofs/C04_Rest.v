(* Proofs/C04_Rest.v - panic freedom of the entry points that had no C04 theorem yet:
     the quirks:: getters and setters (wrappers over the accessors / mutators, parse_host, parse_port),
     Url::path_segments / query_pairs (views), Url::make_relative, Url::to_file_path / from_file_path /
     from_directory_path, Url::origin (with the exact model-level panic class).
   All on records satisfying wf_b / wfh; no hypothesis on the host functions. *)
From RU Require Import Base.Prelude Base.Utf8 Model.AsciiSet Gen.Tables Model.PercentEncoding
  Model.HostT Model.UrlRecord Model.Parser Model.Setters Model.WF Model.MakeRelative Model.QueryPairs Model.FilePath
  Proofs.ListN Proofs.C03_WF Proofs.C06_Steps Proofs.C06_Port Proofs.C06_Main Proofs.C06_Quirks
  Proofs.C04_Parse Proofs.C04_SetPath Proofs.C04_SetHost.
From RU Require Properties.C03 Properties.C06 Properties.C20.

(* ---------------------------------------------------------------- quirks getters *)
Section QuirksGet.
Variable dbg : bool.
Variable u : url.
Hypothesis W : wf_b u = true.

Theorem quirks_getters_total :
  (exists s, q_protocol u = Some s) /\ (exists s, q_username dbg u = Some s) /\ (exists s, q_password dbg u = Some s)
  /\ (exists s, q_host dbg u = Some s) /\ (exists s, q_hostname u = Some s) /\ (exists s, q_port dbg u = Some s)
  /\ (exists s, q_pathname u = Some s) /\ (exists s, q_search dbg u = Some s) /\ (exists s, q_hash dbg u = Some s).
Proof.
  destruct (C03.C03_concat dbg u W) as (sch & un & pw & hs & pth & q & f & H1 & H2 & H3 & H4 & H5 & _).
  destruct (C03.C03_slices dbg u W) as (R & T & _).
  split.
  { unfold q_protocol. destruct (wf_scheme_facts u W) as (_ & _ & Hlt).
    unfold scheme, u_slice_to. rewrite slice_to_o_some by lia. cbn [bindo].
    eexists. apply slice_to_o_some. rewrite nlen_nfirstn by lia. lia. }
  split; [exists un; exact H2|].
  split; [unfold q_password; rewrite H3; cbn [bindo]; eexists; reflexivity|].
  split; [unfold q_host; apply R; cbn; lia|].
  split; [unfold q_hostname; rewrite H4; cbn [bindo]; eexists; reflexivity|].
  split; [unfold q_port; apply R; cbn; lia|].
  split; [exists pth; exact H5|].
  split.
  - unfold q_search. destruct (R AfterPath AfterQuery ltac:(cbn; lia)) as [s Hs]. rewrite Hs. cbn [bindo]. eexists. reflexivity.
  - unfold q_hash. destruct (T AfterQuery) as (s & t & _ & Ht & _). rewrite Ht. cbn [bindo]. eexists. reflexivity.
Qed.
End QuirksGet.

(* ---------------------------------------------------------------- quirks setters *)
Section QuirksSet.
Variable dbg : bool.
Variable hp hpo : list N -> result host.
Variable hd : host -> list N.

Variable u : url.
Hypothesis WH : wfh u.

Theorem q_set_host_total v : exists r, q_set_host dbg hp hpo hd u v = Some r.
Proof.
  destruct WH as [W _]. unfold q_set_host. rewrite (cannot_be_a_base_eval u W). cbn [bindo].
  destruct (negb (byte_eqb (ser u) (scheme_end u + 1) 47)); [eexists; reflexivity|].
  rewrite (scheme_eval u W). cbn [bindo]. set (sc := piece u _ _). set (st := scheme_type_of sc).
  destruct (scheme_type_eqb st STFile && match v with [] => true | _ => false end).
  - destruct (set_host_internal_total dbg hp hpo hd u (HDomain []) None W) as [u' E]. rewrite E. cbn [bindo]. eexists. reflexivity.
  - pose proof (parse_host_no_panic hp hpo st (input_new_no_trim v)) as Hh.
    destruct (parse_host hp hpo st (input_new_no_trim v)) as [[h remaining]|e|]; [| |congruence]; cbn [pres_ok bindo];
      [|eexists; reflexivity].
    set (op := match inp_split_prefix_char 58 remaining with
               | Some rem => if inp_is_empty rem then Some None
                             else match parse_port CSetter (default_port sc) rem with POk (p, _) => Some (Some p) | _ => Some None end
               | None => Some None end).
    assert (exists o, op = Some o) as [o Eo].
    { unfold op. destruct (inp_split_prefix_char 58 remaining) as [rem|]; [|eexists; reflexivity].
      destruct (inp_is_empty rem); [eexists; reflexivity|].
      destruct (parse_port CSetter (default_port sc) rem) as [[p r]| |]; eexists; reflexivity. }
    rewrite Eo. cbn [bindo]. rewrite (username_eval dbg u W). cbn [bindo].
    match goal with |- exists r, (if ?c then _ else _) = Some r => destruct c end; [eexists; reflexivity|].
    destruct (set_host_internal_total dbg hp hpo hd u h o W) as [u' E]. rewrite E. cbn [bindo]. eexists. reflexivity.
Qed.

Theorem q_set_hostname_total v : exists r, q_set_hostname dbg hp hpo hd u v = Some r.
Proof.
  destruct WH as [W _]. unfold q_set_hostname. rewrite (cannot_be_a_base_eval u W). cbn [bindo].
  destruct (negb (byte_eqb (ser u) (scheme_end u + 1) 47)); [eexists; reflexivity|].
  rewrite (scheme_eval u W). cbn [bindo]. set (sc := piece u _ _). set (st := scheme_type_of sc).
  destruct (scheme_type_eqb st STFile && match v with [] => true | _ => false end).
  - destruct (set_host_internal_total dbg hp hpo hd u (HDomain []) None W) as [u' E]. rewrite E. cbn [bindo]. eexists. reflexivity.
  - pose proof (parse_host_no_panic hp hpo st (input_new_no_trim v)) as Hh.
    destruct (parse_host hp hpo st (input_new_no_trim v)) as [[h remaining]|e|]; [| |congruence]; cbn [pres_ok bindo];
      [|eexists; reflexivity].
    destruct (quirks_getters_total dbg u W) as (_ & _ & [pw Epw] & _ & _ & [pt Ept] & _).
    assert (exists b, match h with
                   | HDomain [] =>
                       p <- q_port dbg u ;; un <- username dbg u ;; pw <- q_password dbg u ;;
                       Some (scheme_type_eqb st STSpecialNotFile
                             || negb (match p with [] => true | _ => false end)
                             || negb (match un with [] => true | _ => false end)
                             || negb (match pw with [] => true | _ => false end))
                   | _ => Some false
                   end = Some b) as [b Eb].
    { destruct h as [[|d0 d]|a|a]; try (eexists; reflexivity).
      rewrite Ept, (username_eval dbg u W), Epw. cbn [bindo]. eexists. reflexivity. }
    rewrite Eb. cbn [bindo]. destruct b; [eexists; reflexivity|].
    destruct (set_host_internal_total dbg hp hpo hd u h None W) as [u' E]. rewrite E. cbn [bindo]. eexists. reflexivity.
Qed.

Theorem q_set_port_total v : exists r, q_set_port dbg u v = Some r.
Proof.
  destruct WH as [W HT]. destruct (q_set_port_ok dbg u v W HT) as (u' & st & E & _). exists (u', st). exact E.
Qed.

Theorem q_set_pathname_total v : exists u', q_set_pathname dbg u v = Some u'.
Proof.
  destruct WH as [W _]. unfold q_set_pathname. rewrite (cannot_be_a_base_eval u W). cbn [bindo].
  destruct (negb (byte_eqb (ser u) (scheme_end u + 1) 47)); [eexists; reflexivity|].
  unfold u_scheme_type. rewrite (scheme_eval u W). cbn [bindo].
  repeat match goal with |- exists u', (if ?c then _ else _) = Some u' => destruct c end; apply set_path_total; exact W.
Qed.

Theorem quirks_setters_total :
  (forall v, exists r, q_set_protocol dbg u v = Some r)
  /\ (forall v, exists r, q_set_username dbg u v = Some r)
  /\ (forall v, exists r, q_set_password dbg u v = Some r)
  /\ (forall v, exists r, q_set_host dbg hp hpo hd u v = Some r)
  /\ (forall v, exists r, q_set_hostname dbg hp hpo hd u v = Some r)
  /\ (forall v, exists r, q_set_port dbg u v = Some r)
  /\ (forall v, exists u', q_set_pathname dbg u v = Some u')
  /\ (forall v, usv_list v -> exists u', q_set_search dbg u v = Some u')
  /\ (forall v, exists u', q_set_hash dbg u v = Some u').
Proof.
  destruct (C06.C06_nopanic dbg u WH) as (Hf & Hq & _ & Hpw & Hun & Hs).
  split; [intros v; apply Hs|]. split; [intros v; apply Hun|]. split; [intros v; apply Hpw|].
  split; [exact q_set_host_total|]. split; [exact q_set_hostname_total|]. split; [exact q_set_port_total|].
  split; [exact q_set_pathname_total|]. split; [|intros v; apply Hf].
  intros v Hv. unfold q_set_search. apply Hq. destruct v as [|c r]; [exact I|].
  destruct (c =? 63) eqn:E.
  - apply N.eqb_eq in E. subst c. cbn. inversion Hv; assumption.
  - destruct c as [|p]; [exact Hv|]. 
    repeat (destruct p as [p|p|]; try exact Hv). discriminate E.
Qed.
End QuirksSet.

(* ---------------------------------------------------------------- views: path_segments, query_pairs *)
Lemma host_of_some (dbg : bool) u : wf_b u = true -> exists h, host_of u = Some h.
Proof.
  intros W. destruct (has_host u) eqn:Hh.
  - destruct (proj1 (proj1 (proj2 (C03.C03_views dbg u W))) Hh) as [h Eh]. exists (Some h). exact Eh.
  - unfold has_host in Hh. unfold host_of. destruct (hosti u); try discriminate. eexists. reflexivity.
Qed.

Theorem views_total dbg u : wf_b u = true ->
  (exists r, path_segments u = Some r) /\ (exists r, query_pairs dbg u = Some r).
Proof.
  intros W. split.
  - unfold path_segments. rewrite (path_eval u W). cbn [bindo].
    destruct (piece u _ _) as [|c r]; [eexists; reflexivity|].
    destruct c as [|p]; [eexists; reflexivity|]. repeat (destruct p as [p|p|]; try (eexists; reflexivity)).
  - unfold query_pairs. rewrite (query_eval dbg u W). eexists. reflexivity.
Qed.

(* ---------------------------------------------------------------- file paths *)
Theorem from_file_path_no_panic p : from_file_path p <> FPanic /\ from_directory_path p <> FPanic.
Proof.
  assert (from_file_path p <> FPanic) as H.
  { unfold from_file_path, path_to_file_url_segments. destruct (negb (path_is_absolute p)); [discriminate|].
    change (to_u32 (nlen s_file_css)) with (POk (A := N) 7). cbv zeta. discriminate. }
  split; [exact H|]. unfold from_directory_path. destruct (from_file_path p); [discriminate | discriminate | congruence].
Qed.

Theorem to_file_path_no_panic dbg u : wf_b u = true -> to_file_path dbg u <> FPanic.
Proof.
  intros W Hp. destruct (proj1 (views_total dbg u W)) as [[segs|] Es].
  - destruct (host_of_some dbg u W) as [h Eh].
    assert (scheme u <> None) as Hs by (rewrite (scheme_eval u W); discriminate).
    destruct h as [h|].
    + destruct h as [d|a|a].
      * destruct (list_eqb d s_localhost) eqn:El.
        -- apply list_eqb_spec in El. subst d.
           rewrite (C20.C20_to dbg u segs Es (or_intror Eh) Hs) in Hp. discriminate.
        -- assert (HDomain d <> HDomain s_localhost) as Hn.
           { intros X. inversion X; subst. rewrite (proj2 (list_eqb_spec s_localhost s_localhost) eq_refl) in El. discriminate. }
           rewrite (proj1 (proj2 (C20.C20_host dbg u)) segs (HDomain d) Es Eh Hn) in Hp. discriminate.
      * rewrite (proj1 (proj2 (C20.C20_host dbg u)) segs (HIpv4 a) Es Eh ltac:(discriminate)) in Hp. discriminate.
      * rewrite (proj1 (proj2 (C20.C20_host dbg u)) segs (HIpv6 a) Es Eh ltac:(discriminate)) in Hp. discriminate.
    + rewrite (C20.C20_to dbg u segs Es (or_introl Eh) Hs) in Hp. discriminate.
  - rewrite (proj1 (C20.C20_host dbg u) Es) in Hp. discriminate.
Qed.

(* ---------------------------------------------------------------- make_relative *)
(* the only panic site of its own is `&filename[1..]` in extract_path_filename (index 1 not a char boundary): not
   reachable when the path is ASCII (C05) *)
Lemma extract_ascii s : Forall (fun b => b < 128) s -> exists r, extract_path_filename s = Some r.
Proof.
  intros H. unfold extract_path_filename. cbv zeta.
  set (i := match rfind 47 s with Some i => i | None => 0 end).
  assert (Forall (fun b => b < 128) (nskipn i s)) as Hk.
  { unfold nskipn. apply Forall_forall. intros x Hx. rewrite Forall_forall in H. apply H.
    rewrite <- (firstn_skipn (N.to_nat i) s). apply in_or_app. right. exact Hx. }
  destruct (nskipn i s) as [|a [|c r]]; [eexists; reflexivity | eexists; reflexivity|].
  cbn [char_boundary_1]. inversion Hk as [|? ? _ Hk2]; subst. inversion Hk2 as [|? ? Hc _]; subst.
  replace (128 <=? c) with false by lia. cbn [andb negb]. eexists. reflexivity.
Qed.

Lemma In_firstn_aux (n : nat) (l : list N) x : In x (firstn n l) -> In x l.
Proof. intros H. rewrite <- (firstn_skipn n l). apply in_or_app. left. exact H. Qed.
Lemma In_skipn_aux (n : nat) (l : list N) x : In x (skipn n l) -> In x l.
Proof. intros H. rewrite <- (firstn_skipn n l). apply in_or_app. right. exact H. Qed.

Lemma piece_ascii u a b : Forall (fun x => x < 128) (ser u) -> Forall (fun x => x < 128) (piece u a b).
Proof.
  intros H. unfold piece, nfirstn, nskipn. apply Forall_forall. intros x Hx. rewrite Forall_forall in H. apply H.
  apply (In_skipn_aux _ _ _ (In_firstn_aux _ _ _ Hx)).
Qed.

Theorem make_relative_total dbg b t : wf_b b = true -> wf_b t = true ->
  Forall (fun x => x < 128) (ser b) -> Forall (fun x => x < 128) (ser t) ->
  exists r, make_relative dbg b t = Some r.
Proof.
  intros Wb Wt Ab At. unfold make_relative.
  rewrite (cannot_be_a_base_eval b Wb), (cannot_be_a_base_eval t Wt). cbn [bindo].
  set (cb := negb (byte_eqb (ser b) (scheme_end b + 1) 47)). set (ct := negb (byte_eqb (ser t) (scheme_end t + 1) 47)).
  assert ((if cb then Some true else Some ct) = Some (if cb then true else ct)) as -> by (destruct cb; reflexivity).
  cbn [bindo]. destruct (cb || (if cb then true else ct)); [eexists; reflexivity|].
  rewrite (scheme_eval b Wb), (scheme_eval t Wt). cbn [bindo].
  match goal with |- exists r, (if ?c then _ else _) = Some r => destruct c end; [eexists; reflexivity|].
  destruct (host_of_some dbg b Wb) as [hb ->]. destruct (host_of_some dbg t Wt) as [ht ->]. cbn [bindo].
  match goal with |- exists r, (if ?c then _ else _) = Some r => destruct c end; [eexists; reflexivity|].
  match goal with |- exists r, (if ?c then _ else _) = Some r => destruct c end; [eexists; reflexivity|].
  rewrite (path_eval b Wb), (path_eval t Wt). cbn [bindo].
  match goal with |- context [extract_path_filename (piece b ?x ?y)] => destruct (extract_ascii _ (piece_ascii b x y Ab)) as [eb ->] end.
  cbn [bindo].
  match goal with |- context [extract_path_filename (piece t ?x ?y)] => destruct (extract_ascii _ (piece_ascii t x y At)) as [et ->] end.
  cbn [bindo]. rewrite (query_eval dbg t Wt). cbn [bindo]. rewrite (fragment_eval dbg t Wt). cbn [bindo].
  eexists. reflexivity.
Qed.
