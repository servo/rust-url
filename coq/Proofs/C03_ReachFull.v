(* Proofs/C03_ReachFull.v - C02's quantifier (Reachable3: parse, join against ANY reached record, the 19 mutators
   outside C02's known_step2, Url::query_pairs_mut sessions) and the invariant inv03 of C03_ReachJoin.v.
     known_k   : a call outside known_step2 on a record with inv03 either leaves the record as it was or is
                 outside excl03k (the host half: an empty new host in front of a stored port is refused by the two
                 quirks setters themselves; Url::set_host with a non-empty argument and set_ip_host never store the
                 empty host - host_nonempty; the path half: is_cbb = is_opaque_b, Known_F_C02_8 is path_bad without
                 the marker) - except for ONE class that known_step2 lacks: a path_segments_mut session on an
                 authority-less record without marker whose result starts with "//".  SessNoSS dbg says that there
                 is no such session on a record of a non-special scheme (AS: others have an authority); it is a named
                 hypothesis of known_k / reach3_inv, proved in Proofs/C03_SessNoSS.v (session_no_ss) and discharged
                 at the end of this file (reach3_inv_all);
     qpm_inv03 : query_pairs_mut sessions keep inv03 and the byte alphabet (no component invariant needed): they keep
                 the fields in front of the query and the views of scheme, host and path (qpm_keeps);
     reach3_inv: every record of Reachable3 satisfies inv03, hence wf_b /\ host_text_ok;
     reach3_closed: what a further invariant needs in order to hold of every record of Reachable3. *)
From RU Require Import Proofs.C15_Ser Proofs.C15_Url.
From RU Require Import Base.Prelude Model.HostT Model.UrlRecord Model.Parser Model.Setters Model.WF Model.QueryPairs
  Proofs.C02_Reach Proofs.C02_Hist Proofs.C02_SetHostCanon Proofs.C02_Reach3 Proofs.C03_WF Proofs.C06_WFI Proofs.C06_Steps
  Proofs.C06_Atomic Proofs.C06_FragQuery Proofs.C06_HostNone Proofs.C06_Segments Proofs.C06_Path Proofs.C06_PathNoAuth
  Proofs.C06_Main Proofs.C06_Quirks Proofs.C05_Enc Proofs.C05_Parser Proofs.C05_CompSteps Proofs.C03_ReachParts
  Proofs.C03_ReachFile Proofs.C03_ReachAll Proofs.C03_PortInv Proofs.C03_AuthEnd Proofs.C05_AuthOfs Proofs.C05_HostText
  Proofs.C05_Alphabet Proofs.C05_Qpm Proofs.C03_ReachAscii Proofs.C03_Views Proofs.C03_ParseFront Proofs.C03_ReachKnown
  Proofs.C03_ReachJoin Proofs.C03_SessNoSS.
Open Scope N_scope.
Open Scope list_scope.

Lemma sw47_byte l i : starts_with [47] (nskipn i l) = byte_eqb l i 47.
Proof.
  unfold byte_eqb. rewrite <- (N.add_0_r i) at 2. rewrite <- nnth_nskipn.
  destruct (nskipn i l) as [|c r]; [reflexivity|]. cbn [starts_with nnth]. rewrite andb_true_r, N.eqb_sym. reflexivity.
Qed.

Lemma cbb_opaque u : is_cbb u = is_opaque_b u.
Proof. unfold is_cbb, is_opaque_b. rewrite sw47_byte. reflexivity. Qed.

Lemma no_qh_existsb p : existsb (fun c => (c =? 63) || (c =? 35)) p = false -> forallb no_qh p = true.
Proof.
  induction p as [|c r IH]; [reflexivity|]. cbn [existsb forallb]. intros H. apply orb_false_iff in H. destruct H as [H1 H2].
  rewrite (IH H2). unfold no_qh. rewrite H1. reflexivity.
Qed.

Lemma nonfile_type u : is_file u = false ->
  scheme_type_eqb (scheme_type_of (piece u (pidx u BeforeScheme) (pidx u AfterScheme))) STFile = false.
Proof.
  cbn [pidx]. rewrite piece0. unfold is_file, scheme_of, scheme_type_of. intros ->.
  match goal with |- context [if ?c then _ else _] => destruct c end; reflexivity.
Qed.

Lemma nfirstn_pos_nonempty p (x : list N) : x <> [] -> nfirstn (Npos p) x <> [].
Proof.
  intros Hx. destruct x as [|c r]; [contradiction|]. unfold nfirstn. pose proof (Pos2Nat.is_pos p) as L.
  destruct (N.to_nat (N.pos p)) eqn:E; [cbn in E; lia|]. cbn [firstn]. discriminate.
Qed.

Section Full.
Variable dbg : bool.
Variable hp hpo : list N -> result host.
Variable hd : host -> list N.
Hypothesis HW : HostWf hp hpo hd.
Hypothesis HNE : host_nonempty hp hpo.

(* the host setters never store the empty host in front of a port *)
Lemma set_ip_host_some u h u' : wf_b u = true -> op_args_ok (OSetIpHost h) ->
  set_ip_host dbg hd u h = Some (u', SOk) -> hosti u' <> HI_None.
Proof using.
  intros W Ha H. unfold set_ip_host in H. rewrite (cannot_be_a_base_eval u W) in H. cbn [bindo] in H.
  destruct (byte_eqb (ser u) (scheme_end u + 1) 47) eqn:Hsl; cbn [negb] in H; [|discriminate].
  destruct (set_host_internal dbg hd u h None) as [u0|] eqn:E; cbn [bindo] in H; [|discriminate].
  inversion H; subst u0. rewrite (set_host_internal_hosti dbg hd u h None u' E).
  destruct h as [d|a|p]; cbn in Ha |- *; [contradiction | discriminate | discriminate].
Qed.

Lemma set_host_some_nonempty u x u' : wf_b u = true -> usv_list x -> x <> [] ->
  set_host dbg hp hpo hd u (Some x) = Some (u', SOk) -> hosti u' <> HI_None.
Proof using HNE.
  intros W Hx Hne H. unfold set_host in H. rewrite (cannot_be_a_base_eval u W) in H. cbn [bindo] in H.
  destruct (byte_eqb (ser u) (scheme_end u + 1) 47) eqn:Hsl; cbn [negb] in H; [|discriminate].
  unfold u_scheme_type in H. rewrite (scheme_eval u W) in H. cbn [bindo] in H.
  match type of H with (if ?c then _ else _) = _ => destruct c end; [discriminate|].
  match type of H with (match ?sub with Some _ => _ | None => _ end) = _ => destruct sub as [hsub|] eqn:Esub end; [|discriminate].
  assert (hsub <> [] /\ usv_list hsub) as [Hs1 Hs2].
  { destruct ((match x with 91 :: _ => true | _ => false end) && ends_with_byte 93 x).
    - inversion Esub; subst hsub. split; assumption.
    - destruct (find_byte 58 x) as [[|p]|]; [discriminate | |].
      + inversion Esub; subst hsub. split; [exact (nfirstn_pos_nonempty p x Hne) | exact (usv_nfirstn _ x Hx)].
      + inversion Esub; subst hsub. split; assumption. }
  match type of H with (match ?r with Ok _ => _ | Err _ => _ end) = _ => destruct r as [host|e] eqn:Er end; [|discriminate].
  destruct (set_host_internal dbg hd u host None) as [u0|] eqn:E; cbn [bindo] in H; [|discriminate].
  inversion H; subst u0. rewrite (set_host_internal_hosti dbg hd u host None u' E).
  apply hi_of_nonempty. intros ->. destruct HNE as [N1 N2].
  match type of Er with (if ?c then _ else _) = _ => destruct c end.
  - exact (N1 hsub Er).
  - exact (Hs1 (N2 hsub Hs2 Er)).
Qed.

Lemma q_set_host_guard u v u' : wf_b u = true -> is_file u = false ->
  q_set_host dbg hp hpo hd u v = Some (u', SOk) -> hosti u' = HI_None -> port u = None.
Proof using.
  intros W Hnf H Hn. unfold q_set_host in H. rewrite (cannot_be_a_base_eval u W) in H. cbn [bindo] in H.
  destruct (byte_eqb (ser u) (scheme_end u + 1) 47) eqn:Hsl; cbn [negb] in H; [|discriminate].
  rewrite (scheme_eval u W) in H. cbn [bindo] in H.
  rewrite (nonfile_type u Hnf) in H. cbn [andb] in H.
  set (sch := piece u (pidx u BeforeScheme) (pidx u AfterScheme)) in *.
  destruct (parse_host hp hpo (scheme_type_of sch) (input_new_no_trim v)) as [[h rem]|e|] eqn:Ep; cbn [pres_ok bindo] in H;
      [|discriminate|discriminate].
    match type of H with bindo ?r _ = _ => replace r with (Some (q_host_port sch rem)) in H end.
    2:{ unfold q_host_port. destruct (inp_split_prefix_char 58 rem) as [rm|]; [|reflexivity].
        destruct (inp_is_empty rm); [reflexivity|].
        destruct (parse_port CSetter (default_port sch) rm) as [[p r0]|e|]; reflexivity. }
    cbn [bindo] in H. rewrite (username_eval dbg u W) in H. cbn [bindo] in H.
    match type of H with (if ?c then _ else _) = _ => destruct c eqn:Ec end; [discriminate|].
    destruct (set_host_internal dbg hd u h (q_host_port sch rem)) as [u0|] eqn:E; cbn [bindo] in H; [|discriminate].
    inversion H; subst u0. rewrite (set_host_internal_hosti dbg hd u h _ u' E) in Hn.
    apply hi_of_host_none in Hn. subst h. cbn [andb] in Ec.
    apply orb_false_iff in Ec. destruct Ec as [_ E3]. destruct (port u); [discriminate | reflexivity].
Qed.

Lemma q_set_hostname_guard u v u' : wf_b u = true -> is_file u = false ->
  q_set_hostname dbg hp hpo hd u v = Some (u', SOk) -> hosti u' = HI_None -> port u = None.
Proof using.
  intros W Hnf H Hn. unfold q_set_hostname in H. rewrite (cannot_be_a_base_eval u W) in H. cbn [bindo] in H.
  destruct (byte_eqb (ser u) (scheme_end u + 1) 47) eqn:Hsl; cbn [negb] in H; [|discriminate].
  rewrite (scheme_eval u W) in H. cbn [bindo] in H.
  rewrite (nonfile_type u Hnf) in H. cbn [andb] in H.
  set (sch := piece u (pidx u BeforeScheme) (pidx u AfterScheme)) in *.
  destruct (parse_host hp hpo (scheme_type_of sch) (input_new_no_trim v)) as [[h rem]|e|] eqn:Ep; cbn [pres_ok bindo] in H;
      [|discriminate|discriminate].
    match type of H with bindo ?r _ = _ => destruct r as [[|]|] eqn:Er end; cbn [bindo] in H; try discriminate.
    destruct (set_host_internal dbg hd u h None) as [u0|] eqn:E; cbn [bindo] in H; [|discriminate].
    inversion H; subst u0. rewrite (set_host_internal_hosti dbg hd u h _ u' E) in Hn.
    apply hi_of_host_none in Hn. subst h.
    destruct (q_port dbg u) as [p|] eqn:Eq; cbn [bindo] in Er; [|discriminate].
    destruct (username dbg u) as [un|]; cbn [bindo] in Er; [|discriminate].
    destruct (q_password dbg u) as [pw|]; cbn [bindo] in Er; [|discriminate].
    inversion Er as [Hr]. destruct p as [|c r]; [apply (q_port_empty dbg u W Eq)|].
    cbn [negb] in Hr. rewrite orb_true_r in Hr. cbn [orb] in Hr. discriminate.
Qed.

Lemma host_bad_of u u' : has_marker u = false -> (hosti u' = HI_None -> port u = None) -> host_bad u u' = false.
Proof using.
  intros Hm Hp. unfold host_bad. rewrite Hm. cbn [orb]. destruct (hi_eqb (hosti u') HI_None) eqn:E; [|apply andb_false_r || (rewrite andb_false_r; reflexivity)].
  apply hi_eqb_none in E. rewrite (Hp E). cbn [has_some]. rewrite !andb_false_r. reflexivity.
Qed.

(* the one class of excl03k that known_step2 lacks *)
Definition SessNoSS : Prop :=
  forall u ops u', wf_b u = true -> noauth_slash_path u -> st_is_special (scheme_type_of (b_scheme u)) = false ->
    Forall psm_op_usv ops ->
    path_segments_session dbg u ops = Some (u', SOk) -> path_starts_with_2slash u' = false.

Hypothesis HSS : SessNoSS.

(* without authority, hierarchical, no marker *)
Lemma nsp_of u : wf_b u = true -> has_authority_b u = false -> is_opaque_b u = false -> has_marker u = false -> noauth_slash_path u.
Proof using.
  intros W Ha Ho Hm. unfold is_opaque_b in Ho. apply negb_false_iff in Ho. split; [exact Ha|]. split; [exact Ho|].
  apply (noauth_no_marker u W Ha). unfold has_marker in Hm. rewrite Ha in Hm. cbn [negb andb] in Hm. apply N.eqb_neq. exact Hm.
Qed.

Lemma path_bad_of u u' : has_marker u = false ->
  (has_authority_b u = false -> is_opaque_b u = false -> path_starts_with_2slash u' = false) -> path_bad u u' = false.
Proof using.
  intros Hm H. unfold path_bad. destruct (has_authority_b u) eqn:Ha; [reflexivity|].
  destruct (is_opaque_b u) eqn:Ho; [reflexivity|]. cbn [negb andb]. rewrite (H eq_refl eq_refl).
  unfold has_marker in Hm. rewrite Ha in Hm. cbn [negb andb] in Hm. rewrite Hm. reflexivity.
Qed.

(* F-C02-8 is path_bad on a record without marker: set_path keeps path_start = scheme_end + 1 there, so the class is
   "the new path starts with //".  o is set_path p itself or quirks set_pathname, which calls it. *)
Lemma c02_8_path_bad u o p u' : wf_b u = true -> has_marker u = false -> usv_list p ->
  Known_F_C02_8 dbg hp hpo hd u o = false -> match o with OSetPath _ | OQPathname _ => True | _ => False end ->
  apply_op dbg hp hpo hd u o = Some u' -> (is_opaque_b u = false -> set_path dbg u p = Some u') -> path_bad u u' = false.
Proof using.
  intros W Hm Hp K8 Ho H Hs. apply (path_bad_of u u' Hm). intros Hna Hop. specialize (Hs Hop).
  pose proof (nsp_of u W Hna Hop Hm) as NA. pose proof NA as (_ & Hsl & Hnm).
  assert (auth_end_ok u) as Hx by (intros _ _; rewrite Hnm; apply noauth_front_end; exact W).
  assert (path_start u' = scheme_end u' + 1) as Hps
    by (destruct (set_path_eval dbg u p u' W Hsl Hp Hx Hs) as (P & hh & rem & -> & _); exact Hnm).
  assert (Known_F_C02_8 dbg hp hpo hd u o = negb (has_authority_b u) && negb (is_cbb u)
            && match apply_op dbg hp hpo hd u o with
               | Some u' => (path_start u' =? scheme_end u' + 1) && path_starts_with_2slash u'
               | None => false
               end) as E8 by (destruct o; try contradiction; reflexivity).
  rewrite E8, H, Hna, cbb_opaque, Hop in K8. cbn [negb andb] in K8.
  rewrite Hps, N.eqb_refl in K8. exact K8.
Qed.

(* a call outside C02's known classes is outside excl03k, or changes nothing *)
Lemma known_step2_false u o : known_step2 dbg hp hpo hd u o = false ->
  (is_host_or_path_op o = true -> has_marker u = false) /\ Known_F_C02_3 u o = false /\ Known_F_C02_2 u o = false
  /\ Known_F_C02_8 dbg hp hpo hd u o = false /\ Known_F_C02_4 u o = false.
Proof using.
  unfold known_step2, known_step, Known_F_C03_5. intros H.
  repeat (apply orb_false_iff in H; destruct H as [H ?]).
  repeat split; try assumption. intros Ho. rewrite Ho, andb_true_r in H. exact H.
Qed.

Theorem known_k u o u' : inv03 u -> op_args_ok o -> known_step2 dbg hp hpo hd u o = false ->
  apply_op dbg hp hpo hd u o = Some u' -> known03k u o u' = false.
Proof using HW HNE HSS.
  intros ([W HT] & A & _) Ha Hk H.
  assert (u' = u \/ excl03k u o u' = false) as [->|G];
    [|unfold known03k; rewrite url_eqb_refl03; reflexivity | unfold known03k; rewrite G; apply andb_false_r].
  destruct (known_step2_false u o Hk) as (K5 & K3 & K2 & K8 & K4).
  (* a host setter that fails returns the record; one that succeeds is judged by host_bad *)
  assert (forall st, (st <> SOk -> u' = u) -> (st = SOk -> hosti u' = HI_None -> port u = None) ->
            is_host_or_path_op o = true -> u' = u \/ host_bad u u' = false) as HB.
  { intros st Hf Hs Ho. destruct st; [right; exact (host_bad_of u u' (K5 Ho) (Hs eq_refl)) | left; apply Hf; discriminate ..]. }
  destruct o; cbn [excl03k excl03 apply_op op_args_ok is_host_or_path_op] in *; try (right; reflexivity);
    try (apply omf_some in H; destruct H as [st H]).
  - (* set_path *)
    right. apply orb_false_iff. split.
    + destruct (is_opaque_b u) eqn:Ho; [|reflexivity]. cbn [andb]. apply negb_false_iff.
      unfold Known_F_C02_3 in K3. rewrite cbb_opaque, Ho in K3. cbn [andb] in K3.
      apply orb_false_iff in K3. exact (no_qh_existsb p (proj1 K3)).
    + exact (c02_8_path_bad u (OSetPath p) p u' W (K5 eq_refl) Ha K8 I H (fun _ => H)).
  - (* set_host *)
    destruct h as [x|]; [|right; exact K2].
    apply (HB st); [exact (set_host_atomic dbg hp hpo hd u (Some x) u' st H) | | reflexivity].
    intros -> Hn. cbn [Known_F_C02_4] in K4. apply orb_false_iff in K4. destruct K4 as [_ K4].
    destruct x as [|c r]; [|exfalso; exact (set_host_some_nonempty u (c :: r) u' W Ha ltac:(discriminate) H Hn)].
    cbn [andb] in K4. unfold has_credentials_or_port in K4. apply orb_false_iff in K4.
    destruct (port u); [destruct K4; discriminate | reflexivity].
  - (* set_ip_host *)
    apply (HB st); [exact (set_ip_host_atomic dbg hd u h u' st H) | | reflexivity].
    intros -> Hn. exfalso. exact (set_ip_host_some u h u' W Ha H Hn).
  - (* path_segments_mut *)
    destruct st; [|left; exact (path_segments_session_atomic dbg u ops u' _ H ltac:(discriminate)) ..].
    right. apply (path_bad_of u u' (K5 eq_refl)). intros Hna Ho.
    apply (HSS u ops u' W (nsp_of u W Hna Ho (K5 eq_refl))); [|exact Ha | exact H].
    destruct (st_is_special (scheme_type_of (b_scheme u))) eqn:Es; [|reflexivity].
    rewrite (wf_ao_auth u W (A Es)) in Hna. discriminate.
  - (* quirks set_host *)
    apply (HB st); [exact (q_set_host_atomic dbg hp hpo hd u s u' st H) | | reflexivity].
    intros ->. exact (q_set_host_guard u s u' W K4 H).
  - (* quirks set_hostname *)
    apply (HB st); [exact (q_set_hostname_atomic dbg hp hpo hd u s u' st H) | | reflexivity].
    intros ->. exact (q_set_hostname_guard u s u' W K4 H).
  - (* quirks set_pathname *)
    right. destruct (q_set_pathname_eval dbg u s W) as (sch & _ & Eq).
    apply (c02_8_path_bad u (OQPathname s) (q_pathname_arg (scheme_type_of sch) (has_host u) s) u' W (K5 eq_refl)
             (q_pathname_arg_usv _ _ s Ha) K8 I H).
    intros Ho. rewrite Eq in H. unfold is_opaque_b in Ho. rewrite Ho in H. exact H.
Qed.

End Full.

(* Url::query_pairs_mut sessions *)
(* the session rewrites the text behind the path (C15's session_shape): the fields in front stay, and with them the
   views of scheme, host and path *)
Lemma qpm_keeps dbg u ops u' : wf_b u = true -> Forall ok_or_space (ser u) -> Forall op_ok ops ->
  query_pairs_session dbg u ops = Some u' ->
  (exists str', u' = edited u str') /\ wf_b u' = true /\ scheme u' = scheme u /\ host_str u' = host_str u
  /\ path u' = path u /\ Forall ok_or_space (ser u').
Proof.
  intros W Hoks Hops H. pose proof (qpm_path dbg u ops u' W Hoks Hops H) as Ep.
  assert (Forall (fun b => b < 128) (ser u)) as Hasc.
  { eapply Forall_impl; [|exact Hoks]. intros b Hb. unfold ok_or_space in Hb. lia. }
  destruct (session_shape dbg u W Hasc ops Hops) as (str' & H1 & F1 & F2 & F3 & _ & F5).
  rewrite H in H1. inversion H1; subst u'. clear H1.
  assert (Hns : Forall (fun c => negb (c =? 35) = true) (nskipn (C15_Url.path_end u + 1) str')).
  { apply (F5 (fun c => negb (c =? 35) = true) alpha_not_sharp). apply old_query_no_sharp. exact W. }
  assert (W' : wf_b (edited u str') = true) by (eapply wf_edited; eassumption).
  split; [exists str'; reflexivity|]. split; [exact W'|].
  split; [eapply scheme_edited; eassumption|]. split; [eapply host_str_edited; eassumption|]. split; [exact Ep|].
  unfold edited. cbn [ser]. apply Forall_app. split.
  - apply (forall_split_at ok_or_space str' (C15_Url.path_end u) 63 F3).
    + rewrite F2. apply Forall_nfirstn. exact Hoks.
    + unfold ok_or_space. lia.
    + apply (F5 ok_or_space (fun c Hc => ok_byte_or_space c (form_alpha_ok_byte c Hc))).
      unfold old_query. destruct (query_start u); [|constructor]. apply Forall_nfirstn, Forall_nskipn. exact Hoks.
  - unfold frag_tail. destruct (fragment_start u); [|constructor].
    constructor; [unfold ok_or_space; lia | apply Forall_nskipn; exact Hoks].
Qed.

Theorem qpm_inv03 dbg u ops u' : inv03 u -> Forall ok_or_space (ser u) -> Forall op_ok ops ->
  query_pairs_session dbg u ops = Some u' -> inv03 u' /\ Forall ok_or_space (ser u').
Proof.
  intros ([W HT] & A & P & E) Hoks Hops H.
  destruct (qpm_keeps dbg u ops u' W Hoks Hops H) as ((str' & ->) & W' & Es & Eh & _ & O'). split; [|exact O'].
  split; [split; [exact W' | exact (host_text_ok_of_host_str u _ W W' Eh eq_refl eq_refl eq_refl HT)]|].
  split; [|split; [exact (pn_same u _ Es eq_refl P) | exact (he_same u _ Es Eh E)]].
  intros Hs'. pose proof (spb_same u _ W W' Es) as X. unfold spb in X. rewrite X in Hs'. exact (A Hs').
Qed.

(* the display of an address value is a host text, from C02's clause for addresses *)
Lemma ipwf_of_clause hp hpo hd : HostWf hp hpo hd -> ip_clause hp hpo hd -> IpWf hd.
Proof.
  intros (W1 & _) HC h Hh. destruct (HC h Hh) as (_ & E & _). apply (W1 (hd h) h E).
  destruct h as [d|a|p]; cbn in Hh; [contradiction | discriminate | discriminate].
Qed.

(* every record of C02's Reachable3 *)
Section Reach3.
Variable dbg : bool.
Variable hp hpo : list N -> result host.
Variable hd : host -> list N.
Hypothesis HW : HostWf hp hpo hd.
Hypothesis HNE : host_nonempty hp hpo.
Hypothesis HIPW : IpWf hd.
Hypothesis HOK : HostOK hp hpo hd.
Hypothesis HIP : IpOKv hd.
Hypothesis HSS : SessNoSS dbg.

Theorem reach3_inv u : Reachable3 dbg hp hpo hd u -> inv03 u /\ Forall ok_or_space (ser u).
Proof using HW HNE HIPW HOK HIP HSS.
  induction 1 as [ovr input u Hu Hp Hk | ovr b input u Rb IHb Hu Hp Hk | u o u' R IH Ha Hk H Hk' | u ops u' R IH Hops H Hk].
  - split; [exact (parse_url_inv03 dbg hp hpo hd ovr None input u HW I Hp) | exact (parse_url_oks dbg hp hpo hd ovr None input u HOK I Hp)].
  - destruct IHb as [Ib Ob].
    split; [exact (parse_url_inv03 dbg hp hpo hd ovr (Some b) input u HW Ib Hp) | exact (parse_url_oks dbg hp hpo hd ovr (Some b) input u HOK Ob Hp)].
  - destruct IH as [Iu Ou]. split; [|exact (apply_op_oks_args dbg hp hpo hd u o u' HOK HIP Ha H Ou)].
    exact (inv03_step dbg hp hpo hd HW (proj1 HNE) HIPW u o u' Iu Ha (known_k dbg hp hpo hd HW HNE HSS u o u' Iu Ha Hk H) H).
  - destruct IH as [Iu Ou]. exact (qpm_inv03 dbg u ops u' Iu Ou Hops H).
Qed.
End Reach3.

(* SessNoSS holds *)
Theorem sess_no_ss dbg : SessNoSS dbg.
Proof. intros u ops u' W NA Hns Hops H. exact (session_no_ss dbg u ops u' W NA Hns Hops H). Qed.

Section Reach3All.
Variable dbg : bool.
Variable hp hpo : list N -> result host.
Variable hd : host -> list N.
Hypothesis HW : HostWf hp hpo hd.
Hypothesis HNE : host_nonempty hp hpo.
Hypothesis HIPW : IpWf hd.
Hypothesis HOK : HostOK hp hpo hd.
Hypothesis HIP : IpOKv hd.

Theorem reach3_inv_all : forall u, Reachable3 dbg hp hpo hd u -> inv03 u /\ Forall ok_or_space (ser u).
Proof using HW HNE HIPW HOK HIP. exact (reach3_inv dbg hp hpo hd HW HNE HIPW HOK HIP (sess_no_ss dbg)). Qed.

(* A further invariant X of the records of Reachable3 needs three facts, each with inv03 and the alphabet of the
   earlier record at hand: the parser establishes X (given X of a base), a step outside known03k keeps it, a
   query_pairs_mut session keeps it. *)
Theorem reach3_closed (X : url -> Prop) :
  (forall ovr base input u, match base with Some b => inv03 b /\ X b | None => True end ->
     parse_url dbg hp hpo hd ovr base input = POk u -> X u) ->
  (forall u o u', inv03 u -> X u -> op_args_ok o -> known03k u o u' = false ->
     apply_op dbg hp hpo hd u o = Some u' -> X u') ->
  (forall u ops u', wf_b u = true -> Forall ok_or_space (ser u) -> Forall op_ok ops ->
     query_pairs_session dbg u ops = Some u' -> X u -> X u') ->
  forall u, Reachable3 dbg hp hpo hd u -> X u.
Proof using HW HNE HIPW HOK HIP.
  intros Xp Xs Xq u R.
  induction R as [ovr input u Hu Hp Hk | ovr b input u Rb IHb Hu Hp Hk | u o u' R IH Ha Hk H Hk' | u ops u' R IH Hops H Hk].
  - exact (Xp ovr None input u I Hp).
  - exact (Xp ovr (Some b) input u (conj (proj1 (reach3_inv_all b Rb)) IHb) Hp).
  - destruct (reach3_inv_all u R) as [Iu _].
    exact (Xs u o u' Iu IH Ha (known_k dbg hp hpo hd HW HNE (sess_no_ss dbg) u o u' Iu Ha Hk H) H).
  - destruct (reach3_inv_all u R) as [[[W _] _] Ou]. exact (Xq u ops u' W Ou Hops H IH).
Qed.
End Reach3All.
