(* Proofs/Idna_SimRun.v - the fail-fast run of the UTS #46 model is simulated by the mark-errors run
   (DESIGN Appendix B.4).  For every step function F:
     F_R : R (F true ... false) (F false ... false)     the two runs from a state without errors
     F_M : M (F false ... true)                         the marking run never exits and keeps had_errors
   valid for every adapter.  For the functions that only mark characters the second fact is read off the postcondition
   of the marking run (MK, Proofs/Idna_Mark.v). *)
From RU Require Import Base.Prelude Base.Utf8 Base.U32_c13 Gen.Tables Model.Punycode Model.Uts46
  Proofs.Idna_Sim Proofs.Idna_Api Proofs.Idna_Mark.

Lemma M_of_MK lab r : MK lab true r -> M he2 r.
Proof. destruct r as [[l h]| |s]; [exact (T_he_mono lab l h)|exact (fun H => H)|exact (fun H => H)]. Qed.

Lemma R_lcons c rt rf : R he2 rt rf -> R he2 (lcons c rt) (lcons c rf).
Proof.
  destruct rf as [[l h]| |s]; cbn [R lcons he2 snd]; intros H.
  - destruct h; subst rt; reflexivity.
  - exact H.
  - destruct H as [-> | ->]; [left|right]; reflexivity.
Qed.
Lemma M_lcons c rf : M he2 rf -> M he2 (lcons c rf).
Proof. destruct rf as [[l h]| |s]; cbn [M lcons he2 snd]; auto. Qed.
Lemma scan_mark_M bad l : M he2 (scan_mark false bad l true).
Proof. exact (M_of_MK _ _ (scan_mark_MK bad l true)). Qed.
Lemma scan_mark_R bad l : R he2 (scan_mark true bad l false) (scan_mark false bad l false).
Proof.
  induction l as [|c r IH]; cbn [scan_mark].
  - apply R_ok. reflexivity.
  - destruct (bad c).
    + apply R_exit_of_M. apply M_lcons. apply scan_mark_M.
    + apply R_lcons. exact IH.
Qed.
Lemma check_hyphens_M a lab : M he2 (check_hyphens false a lab true).
Proof. exact (M_of_MK _ _ (check_hyphens_MK a lab true)). Qed.
Lemma check_hyphens_R a lab : R he2 (check_hyphens true a lab false) (check_hyphens false a lab false).
Proof.
  unfold check_hyphens.
  apply R_bind with (hx := he2).
  - destruct lab as [|f r]; [site|]. destruct (f =? HYPHEN); site.
  - intros [l h] E. cbn [he2 snd] in E. subst h.
    apply R_bind with (hx := he2).
    + destruct (last_opt l) as [x|]; [|site]. destruct (x =? HYPHEN); site.
    + intros [l2 h2] E2. cbn [he2 snd] in E2. subst h2.
      destruct a; [site|].
      destruct ((4 <=? len l2) && (nth 2 l2 0 =? HYPHEN) && (nth 3 l2 0 =? HYPHEN)); site.
    + intros [l2 h2] E2. cbn [he2 snd] in E2. subst h2.
      destruct a; [reflexivity|].
      destruct ((4 <=? len l2) && (nth 2 l2 0 =? HYPHEN) && (nth 3 l2 0 =? HYPHEN)); reflexivity.
  - intros [l h] E. cbn [he2 snd] in E. subst h.
    apply M_bind with (hx := he2).
    + destruct (last_opt l) as [x|]; [|reflexivity]. destruct (x =? HYPHEN); reflexivity.
    + intros [l2 h2] E2. cbn [he2 snd] in E2. subst h2.
      destruct a; [reflexivity|].
      destruct ((4 <=? len l2) && (nth 2 l2 0 =? HYPHEN) && (nth 3 l2 0 =? HYPHEN)); reflexivity.
Qed.

Section WithAdapter.
Variable A : adapter.
Variable cfg : bool.
Notation complexF := (complexF A cfg).
Notation Redisc := (Redisc A cfg).
Notation label_nonempty_eq := (label_nonempty_eq A cfg).

Lemma contextj_M rest rhead : M he2 (contextj A cfg false rhead rest true).
Proof. exact (M_of_MK _ _ (contextj_MK A cfg rest rhead true)). Qed.
Lemma contextj_R rest : forall rhead,
  R he2 (contextj A cfg true rhead rest false) (contextj A cfg false rhead rest false).
Proof.
  induction rest as [|c tail IH]; intros rhead; cbn [contextj].
  - site.
  - destruct (negb (in_inclusive_range32 c T_IDNA_JOINER_LO T_IDNA_JOINER_HI)); [apply IH|].
    destruct rhead as [|p rh]; [apply R_exit_of_M; apply contextj_M|].
    destruct (is_virama A p); [apply IH|].
    destruct (c =? 8205); [apply R_exit_of_M; apply contextj_M|].
    destruct (cfg && negb (c =? 8204)); [site|].
    destruct (negb (has_appropriately_joining_char A false (p :: rh)) || negb (has_appropriately_joining_char A true tail));
      [apply R_exit_of_M; apply contextj_M | apply IH].
Qed.
Lemma check_label_M hy lab fcm ncj : M he2 (check_label A cfg false hy lab true fcm ncj).
Proof. exact (M_of_MK _ _ (check_label_MK A cfg hy lab true fcm ncj)). Qed.
Lemma check_label_R hy lab fcm ncj :
  R he2 (check_label A cfg true hy lab false fcm ncj) (check_label A cfg false hy lab false fcm ncj).
Proof.
  unfold check_label.
  apply R_bind with (hx := he2).
  { destruct (negb (hy_is_allow hy)); [apply check_hyphens_R | site]. }
  2:{ he_intro. exact (check_label_M HAllow l false false) || idtac.
      apply M_bind with (hx := he2).
      { destruct fcm; [|reflexivity]. destruct l as [|f r]; [reflexivity|]. destruct (is_mark A f); reflexivity. }
      he_intro. apply M_bind with (hx := he2).
      { destruct ncj; [apply contextj_M | reflexivity]. }
      he_intro.
      destruct (negb (is_ascii_l l1) && (PUNYCODE_ENCODE_MAX_INPUT_LENGTH <? len l1)); [|reflexivity].
      destruct (len l1 <=? PUNYCODE_ENCODE_MAX_INPUT_LENGTH); msite. }
  he_intro. apply R_bind with (hx := he2).
  { destruct fcm; [|site]. destruct l as [|f r]; [site|]. destruct (is_mark A f); site. }
  2:{ he_intro. apply M_bind with (hx := he2).
      { destruct ncj; [apply contextj_M | reflexivity]. }
      he_intro.
      destruct (negb (is_ascii_l l1) && (PUNYCODE_ENCODE_MAX_INPUT_LENGTH <? len l1)); [|reflexivity].
      destruct (len l1 <=? PUNYCODE_ENCODE_MAX_INPUT_LENGTH); msite. }
  he_intro. apply R_bind with (hx := he2).
  { destruct ncj; [apply contextj_R | site]. }
  2:{ he_intro.
      destruct (negb (is_ascii_l l1) && (PUNYCODE_ENCODE_MAX_INPUT_LENGTH <? len l1)); [|reflexivity].
      destruct (len l1 <=? PUNYCODE_ENCODE_MAX_INPUT_LENGTH); msite. }
  he_intro.
  destruct (negb (is_ascii_l l1) && (PUNYCODE_ENCODE_MAX_INPUT_LENGTH <? len l1)); [|site].
  destruct (len l1 <=? PUNYCODE_ENCODE_MAX_INPUT_LENGTH); site.
Qed.
Lemma after_punycode_decode_M dd lb : M he2 (after_punycode_decode A false dd lb true).
Proof.
  unfold after_punycode_decode. apply M_bind with (hx := he2); [apply scan_mark_M|].
  he_intro. destruct (zip_mark l lb); reflexivity.
Qed.
Lemma after_punycode_decode_R dd lb :
  R he2 (after_punycode_decode A true dd lb false) (after_punycode_decode A false dd lb false).
Proof.
  unfold after_punycode_decode. apply R_bind with (hx := he2); [apply scan_mark_R| |].
  - he_intro. destruct (zip_mark l lb); site.
  - he_intro. destruct (zip_mark l lb); reflexivity.
Qed.
Ltac he3_intro := let l := fresh "l" in let h := fresh "h" in let q := fresh "q" in let E := fresh "E" in
  intros [[l h] q] E; cbn [he3 snd fst] in E; subst h.
Lemma end_sublabel_M hy deny cur fcm ncj : M he2 (end_sublabel A cfg false hy (N.lor deny DOT_MASK) cur true fcm ncj).
Proof.
  pose proof (end_sublabel_RP A cfg hy deny cur true fcm ncj) as H.
  destruct (end_sublabel A cfg false hy (N.lor deny DOT_MASK) cur true fcm ncj) as [[l h]| |s];
    [exact (proj2 (proj2 H) (fun _ => eq_refl))|exact H|exact I].
Qed.
Lemma end_sublabel_R hy dd cur fcm ncj :
  R he2 (end_sublabel A cfg true hy dd cur false fcm ncj) (end_sublabel A cfg false hy dd cur false fcm ncj).
Proof.
  unfold end_sublabel. destruct (starts_with cur XN_PREFIX); [|apply check_label_R].
  apply R_bind with (hx := he2); [apply scan_mark_R| |].
  2:{ he_intro. destruct (last_opt (firstn 4 cur ++ l)) as [lst|]; [|exact I].
      apply M_bind with (hx := @he3 (list N) bool).
      { destruct (lst =? HYPHEN); reflexivity. }
      he3_intro. apply M_bind with (hx := @he3 (list N) bool).
      { destruct (PUNYCODE_DECODE_MAX_INPUT_LENGTH <? len l0 - 4); reflexivity. }
      he3_intro. destruct (negb q0); [|apply check_label_M].
      destruct (decode_with cfg CharInternal (skipn 4 l1)) as [dec| |s]; [|apply check_label_M|exact I].
      apply M_bind with (hx := he2); [apply after_punycode_decode_M|].
      he_intro. apply check_label_M. }
  he_intro. destruct (last_opt (firstn 4 cur ++ l)) as [lst|]; [|site].
  apply R_bind with (hx := @he3 (list N) bool).
  { destruct (lst =? HYPHEN); site. }
  2:{ he3_intro. apply M_bind with (hx := @he3 (list N) bool).
      { destruct (PUNYCODE_DECODE_MAX_INPUT_LENGTH <? len l0 - 4); reflexivity. }
      he3_intro. destruct (negb q0); [|apply check_label_M].
      destruct (decode_with cfg CharInternal (skipn 4 l1)) as [dec| |s]; [|apply check_label_M|exact I].
      apply M_bind with (hx := he2); [apply after_punycode_decode_M|].
      he_intro. apply check_label_M. }
  he3_intro. apply R_bind with (hx := @he3 (list N) bool).
  { destruct (PUNYCODE_DECODE_MAX_INPUT_LENGTH <? len l0 - 4); site. }
  2:{ he3_intro. destruct (negb q0); [|apply check_label_M].
      destruct (decode_with cfg CharInternal (skipn 4 l1)) as [dec| |s]; [|apply check_label_M|exact I].
      apply M_bind with (hx := he2); [apply after_punycode_decode_M|].
      he_intro. apply check_label_M. }
  he3_intro. destruct (negb q0); [|apply check_label_R].
  destruct (decode_with cfg CharInternal (skipn 4 l1)) as [dec| |s].
  - apply R_bind with (hx := he2); [apply after_punycode_decode_R| |].
    + he_intro. apply check_label_R.
    + he_intro. apply check_label_M.
  - apply R_exit_of_M. apply check_label_M.
  - site.
Qed.
Lemma sublabels_M hy deny rest : forall s db cur ap fcm ncj,
  M heT (sublabels A cfg false hy (N.lor deny DOT_MASK) s rest db cur true ap fcm ncj).
Proof.
  induction rest as [|s2 rest IH]; intros s db cur ap fcm ncj; cbn [sublabels].
  - apply M_bind with (hx := he2); [apply scan_mark_M|]. he_intro.
    apply M_bind with (hx := he2); [apply end_sublabel_M|]. he_intro. reflexivity.
  - apply M_bind with (hx := he2); [apply scan_mark_M|]. he_intro.
    apply M_bind with (hx := he2); [apply end_sublabel_M|]. he_intro. apply IH.
Qed.
Lemma sublabels_R hy deny rest : forall s db cur ap fcm ncj,
  R heT (sublabels A cfg true hy (N.lor deny DOT_MASK) s rest db cur false ap fcm ncj)
        (sublabels A cfg false hy (N.lor deny DOT_MASK) s rest db cur false ap fcm ncj).
Proof.
  induction rest as [|s2 rest IH]; intros s db cur ap fcm ncj; cbn [sublabels].
  - apply R_bind with (hx := he2); [apply scan_mark_R| |].
    + he_intro. apply R_bind with (hx := he2); [apply end_sublabel_R| |]; he_intro; [site|reflexivity].
    + he_intro. apply M_bind with (hx := he2); [apply end_sublabel_M|]. he_intro. reflexivity.
  - apply R_bind with (hx := he2); [apply scan_mark_R| |].
    + he_intro. apply R_bind with (hx := he2); [apply end_sublabel_R| |]; he_intro; [apply IH|apply sublabels_M].
    + he_intro. apply M_bind with (hx := he2); [apply end_sublabel_M|]. he_intro. apply sublabels_M.
Qed.
Ltac heT_intro := let l := fresh "l" in let h := fresh "h" in let q := fresh "q" in let E := fresh "E" in
  intros [[l h] q] E; cbn [heT snd fst] in E; subst h.
Lemma complexF_M hy deny db ap ascii non_ascii : M heT (complexF false hy deny db true ap ascii non_ascii).
Proof.
  unfold complexF. apply M_bind with (hx := he2); [apply scan_mark_M|]. he_intro.
  destruct (split1 DOT (map (apply_lower deny) (map_normalize A (utf8_lossy non_ascii)))) as [s rest].
  apply sublabels_M.
Qed.
Lemma complexF_R hy deny db ap ascii non_ascii :
  R heT (complexF true hy deny db false ap ascii non_ascii) (complexF false hy deny db false ap ascii non_ascii).
Proof.
  unfold complexF. apply R_bind with (hx := he2); [apply scan_mark_R| |]; he_intro;
  destruct (split1 DOT (map (apply_lower deny) (map_normalize A (utf8_lossy non_ascii)))) as [s rest];
  [apply sublabels_R | apply sublabels_M].
Qed.
Lemma complexT_M hy deny label db ap ascii : M heT (complexT false hy deny label db true ap ascii).
Proof.
  unfold complexT. apply M_bind with (hx := he2); [apply scan_mark_M|]. he_intro.
  apply M_bind with (hx := he2).
  { destruct (negb (hy_is_allow hy)); [apply check_hyphens_M|reflexivity]. }
  he_intro. reflexivity.
Qed.
Lemma complexT_R hy deny label db ap ascii :
  R heT (complexT true hy deny label db false ap ascii) (complexT false hy deny label db false ap ascii).
Proof.
  unfold complexT. apply R_bind with (hx := he2); [apply scan_mark_R| |]; he_intro.
  - apply R_bind with (hx := he2).
    { destruct (negb (hy_is_allow hy)); [apply check_hyphens_R|site]. }
    + he_intro. site.
    + he_intro. reflexivity.
  - apply M_bind with (hx := he2).
    { destruct (negb (hy_is_allow hy)); [apply check_hyphens_M|reflexivity]. }
    he_intro. reflexivity.
Qed.
Lemma label_nonempty_M hy deny label db ap : M heT (label_nonempty A cfg false hy deny label db true ap).
Proof.
  rewrite label_nonempty_eq. destruct (split_ascii_fast_path_prefix label) as [ascii non_ascii].
  destruct non_ascii as [|na nr]; [|apply complexF_M].
  destruct (has_punycode_prefix ascii); [|apply complexT_M].
  destruct (negb match last_opt ascii with Some l => l =? HYPHEN | None => false end
            && (len ascii - 4 <=? PUNYCODE_DECODE_MAX_INPUT_LENGTH)); [|apply complexF_M].
  destruct (decode_with cfg U8Internal (skipn 4 ascii)) as [dec| |s]; [|reflexivity|exact I].
  apply M_bind with (hx := he2); [apply after_punycode_decode_M|]. he_intro.
  apply M_bind with (hx := he2); [apply check_label_M|]. he_intro. reflexivity.
Qed.
Lemma label_nonempty_R hy deny label db ap : Redisc deny ->
  R heT (label_nonempty A cfg true hy deny label db false ap) (label_nonempty A cfg false hy deny label db false ap).
Proof.
  intros HRd. rewrite !label_nonempty_eq. destruct (split_ascii_fast_path_prefix label) as [ascii non_ascii] eqn:Es.
  destruct non_ascii as [|na nr]; [|apply complexF_R].
  destruct (has_punycode_prefix ascii) eqn:Eh; [|apply complexT_R].
  destruct (negb match last_opt ascii with Some l => l =? HYPHEN | None => false end
            && (len ascii - 4 <=? PUNYCODE_DECODE_MAX_INPUT_LENGTH)) eqn:Ec.
  - destruct (decode_with cfg U8Internal (skipn 4 ascii)) as [dec| |s]; [|site|site].
    apply R_bind with (hx := he2); [apply after_punycode_decode_R| |].
    + he_intro. apply R_bind with (hx := he2); [apply check_label_R| |]; he_intro; [site|reflexivity].
    + he_intro. apply M_bind with (hx := he2); [apply check_label_M|]. he_intro. reflexivity.
  - apply R_exit_of_M. apply HRd; [exact (split_ascii_all label ascii Es)|assumption|assumption].
Qed.
Lemma label_step_M hy deny label s : i_he s = true -> M i_he (label_step A cfg false hy deny label s).
Proof.
  intros Hs. unfold label_step.
  destruct (i_inpre s && is_passthrough_ascii_label label); [exact Hs|].
  destruct label as [|b r]; [exact Hs|].
  rewrite Hs. apply M_bind with (hx := heT); [apply label_nonempty_M|]. heT_intro. reflexivity.
Qed.
Lemma label_step_R hy deny label s : Redisc deny -> i_he s = false ->
  R i_he (label_step A cfg true hy deny label s) (label_step A cfg false hy deny label s).
Proof.
  intros HRd Hs. unfold label_step.
  destruct (i_inpre s && is_passthrough_ascii_label label); [apply R_ok; exact Hs|].
  destruct label as [|b r]; [apply R_ok; exact Hs|].
  rewrite Hs. apply R_bind with (hx := heT); [apply label_nonempty_R; exact HRd| |]; heT_intro; [site|reflexivity].
Qed.
Lemma labels_loop_M hy deny labels : forall s, i_he s = true -> M i_he (labels_loop A cfg false hy deny labels s).
Proof.
  induction labels as [|l r IH]; intros s Hs; cbn [labels_loop]; [exact Hs|].
  apply M_bind with (hx := i_he); [apply label_step_M; exact Hs|]. intros x Hx. apply IH. exact Hx.
Qed.
Lemma labels_loop_R hy deny labels : Redisc deny -> forall s, i_he s = false ->
  R i_he (labels_loop A cfg true hy deny labels s) (labels_loop A cfg false hy deny labels s).
Proof.
  intros HRd. induction labels as [|l r IH]; intros s Hs; cbn [labels_loop]; [apply R_ok; exact Hs|].
  apply R_bind with (hx := i_he); [apply label_step_R; assumption| |].
  - intros x Hx. apply IH. exact Hx.
  - intros x Hx. apply labels_loop_M. exact Hx.
Qed.
Lemma R_cons3 c rt rf : R heN rt rf -> R heN (cons3 c rt) (cons3 c rf).
Proof.
  destruct rf as [[[l h] n]| |s]; cbn [R cons3 heN snd fst]; intros H.
  - destruct h; subst rt; reflexivity.
  - exact H.
  - destruct H as [-> | ->]; [left|right]; reflexivity.
Qed.
Lemma M_cons3 c rf : M heN rf -> M heN (cons3 c rf).
Proof. destruct rf as [[[l h] n]| |s]; cbn [M cons3 heN snd fst]; auto. Qed.
Lemma rtl_middle_M prior ns : M heN (rtl_middle A false prior ns true).
Proof.
  pose proof (rtl_middle_MK3 A prior ns true) as H. destruct (rtl_middle A false prior ns true) as [[[l h] n]| |s]; [exact (T_he_mono _ _ _ H)|exact H|exact I].
Qed.
Lemma rtl_middle_R prior : forall ns, R heN (rtl_middle A true prior ns false) (rtl_middle A false prior ns false).
Proof.
  induction prior as [|c r IH]; intros ns; cbn [rtl_middle]; [site|].
  destruct (negb (bc_mid_rtl (bidi_class A c))); [apply R_exit_of_M; apply M_cons3; apply rtl_middle_M|].
  destruct ns.
  - apply R_cons3; apply IH.
  - destruct (bc_an (bidi_class A c)); [apply R_exit_of_M; apply M_cons3; apply rtl_middle_M | apply R_cons3; apply IH].
  - destruct (bc_en (bidi_class A c)); [apply R_exit_of_M; apply M_cons3; apply rtl_middle_M | apply R_cons3; apply IH].
Qed.
Ltac heC_intro := let l := fresh "c" in let h := fresh "h" in let E := fresh "E" in
  intros [l h] E; cbn [heC snd] in E; subst h.
Ltac heN_intro := let l := fresh "l" in let h := fresh "h" in let q := fresh "q" in let E := fresh "E" in
  intros [[l h] q] E; cbn [heN snd fst] in E; subst h.
Lemma bidi_label_M label : M he2 (bidi_label A false label true).
Proof. exact (M_of_MK _ _ (bidi_label_MK A label true)). Qed.
Lemma bidi_label_R label : R he2 (bidi_label A true label false) (bidi_label A false label false).
Proof.
  unfold bidi_label. destruct label as [|first tail]; [site|].
  destruct (negb (bc_first (bidi_class A first))); [site|].
  destruct (trim_nsm A tail) as [[[prior last] nsms]|]; [|site].
  apply R_bind with (hx := heC).
  { destruct (negb (if bc_ltr (bidi_class A first) then bc_last_ltr (bidi_class A last) else bc_last_rtl (bidi_class A last))); site. }
  - heC_intro. destruct (bc_ltr (bidi_class A first)).
    + apply R_bind with (hx := he2); [apply scan_mark_R| |]; he_intro; [site|reflexivity].
    + apply R_bind with (hx := heN); [apply rtl_middle_R| |]; heN_intro.
      * destruct (match q with European => bc_an (bidi_class A last) | Arabic => bc_en (bidi_class A last) | Undecided => false end); site.
      * destruct (match q with European => bc_an (bidi_class A last) | Arabic => bc_en (bidi_class A last) | Undecided => false end); reflexivity.
  - heC_intro. destruct (bc_ltr (bidi_class A first)).
    + apply M_bind with (hx := he2); [apply scan_mark_M|]. he_intro. reflexivity.
    + apply M_bind with (hx := heN); [apply rtl_middle_M|]. heN_intro.
      destruct (match q with European => bc_an (bidi_class A last) | Arabic => bc_en (bidi_class A last) | Undecided => false end); reflexivity.
Qed.
Ltac heL_intro := let l := fresh "ls" in let h := fresh "h" in let E := fresh "E" in
  intros [l h] E; cbn [heL snd] in E; subst h.
Lemma bidi_labels_M labels : M heL (bidi_labels A false labels true).
Proof.
  pose proof (bidi_labels_BLP A labels true) as H. destruct (bidi_labels A false labels true) as [[ls h]| |s]; [exact (proj2 H (fun _ => eq_refl))|exact H|exact I].
Qed.
Lemma bidi_labels_R labels : R heL (bidi_labels A true labels false) (bidi_labels A false labels false).
Proof.
  induction labels as [|l r IH]; cbn [bidi_labels]; [site|].
  apply R_bind with (hx := he2); [apply bidi_label_R| |]; he_intro.
  - apply R_bind with (hx := heL); [apply IH| |]; heL_intro; [site|reflexivity].
  - apply M_bind with (hx := heL); [apply bidi_labels_M|]. heL_intro. reflexivity.
Qed.
Lemma process_innermost_sim hy deny d tail : Redisc deny ->
  inner_sim (process_innermost A cfg true hy deny d tail) (process_innermost A cfg false hy deny d tail).
Proof.
  intros HRd. unfold process_innermost.
  set (s0 := {| i_ptu := len d - len tail; i_seen := false; i_inpre := true; i_db := []; i_he := false; i_ap := [] |}).
  pose proof (labels_loop_R hy deny (split_on DOT tail) HRd s0 eq_refl) as HR.
  destruct (labels_loop A cfg false hy deny (split_on DOT tail) s0) as [s| |p]; cbn [R] in HR.
  - destruct (i_he s) eqn:Eh.
    + rewrite HR.
      destruct (is_bidi A cfg (i_db s)) as [[|]| |p]; cbn [inner_sim]; try (left; reflexivity); try reflexivity.
      pose proof (bidi_labels_M (split_on DOT (i_db s))) as HM.
      destruct (bidi_labels A false (split_on DOT (i_db s)) true) as [[ls h]| |p]; cbn [M heL snd] in HM.
      * subst h. reflexivity.
      * contradiction.
      * left; reflexivity.
    + rewrite HR. rewrite Eh.
      destruct (is_bidi A cfg (i_db s)) as [[|]| |p]; cbn [inner_sim]; try (right; reflexivity); try reflexivity.
      pose proof (bidi_labels_R (split_on DOT (i_db s))) as HB.
      destruct (bidi_labels A false (split_on DOT (i_db s)) false) as [[ls h]| |p]; cbn [R heL snd] in HB.
      * destruct h; rewrite HB; reflexivity.
      * contradiction.
      * destruct HB as [-> | ->]; [left|right]; reflexivity.
  - contradiction.
  - destruct HR as [-> | ->]; cbn [inner_sim]; [left|right]; reflexivity.
Qed.
Theorem process_inner_sim hy deny d : Redisc deny ->
  inner_sim (process_inner A cfg true hy deny d) (process_inner A cfg false hy deny d).
Proof.
  intros HRd. unfold process_inner. destruct (fast_tier d d) as [tail|].
  - apply process_innermost_sim. exact HRd.
  - reflexivity.
Qed.
End WithAdapter.

Section Verdict.
Variable A : adapter.
Variable cfg : bool.

(* C11, first half: an error reported by the marking run is reported by the fail-fast run *)
Theorem mark_err_ff_err d deny hy p b t : Redisc A cfg deny ->
  to_user_interface A cfg d deny hy p = UI b t true ->
  to_ascii A cfg d deny hy DIgnore = Err.
Proof.
  intros HRd H. destruct (ui_err_inner A cfg _ _ _ _ _ _ H) as (ptu & bd & db & ap & Hf).
  pose proof (process_inner_sim A cfg hy deny d HRd) as HS. rewrite Hf in HS. cbn [inner_sim] in HS.
  apply ta_of_exit; [exact HS|].
  intros ->. rewrite process_inner_nil in Hf. discriminate.
Qed.

(* C11, second half: an error reported by the fail-fast run is reported by the marking run, or the
   marking run returns Passthrough (the input borrowed, no error) although had_errors is set -
   which a build with debug assertions turns into a panic (F-C11-2) *)
Theorem ff_err_mark_err d deny hy p b t e : Redisc A cfg deny ->
  to_ascii A cfg d deny hy DIgnore = Err ->
  to_user_interface A cfg d deny hy p = UI b t e ->
  e = true \/ (cfg = false /\ b = true /\ t = d).
Proof.
  intros HRd Ha Hu. destruct (ta_err_inner A cfg _ _ _ Ha) as (ptu & bd & db & ap & Ht).
  pose proof (process_inner_sim A cfg hy deny d HRd) as HS. rewrite Ht in HS.
  revert Hu. unfold to_user_interface, process.
  destruct (process_inner A cfg false hy deny d) as [ptu' bd' he db' ap'|s]; cbn [inner_sim] in HS.
  2:{ destruct HS as [HS|HS]; discriminate. }
  destruct he.
  2:{ inversion HS. }
  destruct (ptu' =? len d).
  { destruct cfg; cbn [andb]; [discriminate|]. intros Hu. inversion Hu. right. auto. }
  cbn [andb].
  destruct (cfg && negb (Bool.eqb true (existsb is_fffd db'))); [discriminate|].
  match goal with |- context [walk1 ?a ?b ?c ?d ?e ?f ?g ?h ?i ?j ?k ?l ?m] =>
    pose proof (fun Hc : a = true => eq_ind_r (fun a' => NP (walk1 a' b c d e f g h i j k l m)) (walk1_no_pass_dbg b c d e f h i j k l m) Hc) as HNP;
    destruct (walk1 a b c d e f g h i j k l m) as [ws we] eqn:Ew end.
  cbn [fst snd run_sink negb].
  destruct we as [|huo|s]; try discriminate.
  - intros Hu. inversion Hu. right. destruct cfg; [|auto].
    exfalso. specialize (HNP eq_refl). rewrite Ew in HNP. apply HNP. reflexivity.
  - intros Hu. inversion Hu. left; reflexivity.
Qed.
End Verdict.
