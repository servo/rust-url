(* Proofs/C03_ReachJoin.v - histories with joins and file: texts whose exclusions are ONLY the known findings.
   inv03 u (C03_ParseFront.v) = wfh u /\ AS u /\ PN u /\ HE u :
     wf_b and host_text_ok; a special scheme is followed by "://" (C05_AuthOfs.AS, hence base_ok: the record is a
     possible base); the stored port is not the scheme default; with a special scheme the host text does not end
     in '/', and a special scheme other than file has a host (hence auth_end_ok).
   It is an invariant of Parser::parse_url (parse_url_inv03: any input, any base with inv03) and of every call of
   the 19 mutators outside excl03k (inv03_step).  reach03j: parse (no base), join against ANY reached record,
   the two file-path constructors, any mutator call outside known03k.  Hypotheses on the host functions: HostWf,
   NoEmpty (Host::parse never returns the empty host), IpWf. *)
From RU Require Import Base.Prelude Model.HostT Model.UrlRecord Model.Parser Model.FilePath Proofs.C02_Reach Proofs.C06_Main
  Proofs.C03_ReachParts Proofs.C03_ReachAll Proofs.C03_Reachability Proofs.C03_PortInv Proofs.C03_AuthEnd Proofs.C05_BaseOk
  Proofs.C05_AuthOfs Proofs.C05_HostText Proofs.C03_ReachAscii Proofs.C03_ParseFront Proofs.C03_ReachKnown Proofs.C20_RT.
Open Scope N_scope.
Open Scope list_scope.

Section Steps.
Variable dbg : bool.
Variable hp hpo : list N -> result host.
Variable hd : host -> list N.
Hypothesis HW : HostWf hp hpo hd.

(* a step never makes a non-special scheme special *)
Theorem spb_back u o u' : IpDisp hd -> wfh u -> op_args_ok o -> excl03 u o u' = false ->
  apply_op dbg hp hpo hd u o = Some u' -> spb u' = true -> spb u = true.
Proof using HW.
  intros HIP K Ha G H. pose proof K as [W _].
  destruct (step_cases dbg hp hpo hd HW u o u' HIP K Ha G H) as [->|[[W' _] k]]; [tauto|].
  assert (scheme u' = scheme u -> spb u' = true -> spb u = true) as SS.
  { intros Es. rewrite (spb_same u u' W W' Es). tauto. }
  destruct k as [[(Es & _) _|(Es & _) _|sch _ Es _ _ _|new Es _ _ _ Hcl _]|[sch h _ _ Es _ _ _|Es _ _ _ _]];
    try exact (SS Es).
  (* set_scheme: special <-> special only *)
  rewrite (scheme_b u' W') in Es. injection Es as E1. unfold spb. rewrite E1, (Hcl _ (scheme_b u W)). tauto.
Qed.

(* "special => ://" along a step *)
Theorem as_step u o u' : IpDisp hd -> wfh u -> op_args_ok o -> excl03 u o u' = false ->
  apply_op dbg hp hpo hd u o = Some u' -> AS u -> AS u'.
Proof using HW.
  intros HIP K Ha G H A Hs'. pose proof K as [W _].
  pose proof (spb_back u o u' HIP K Ha G H Hs') as Hs. specialize (A Hs).
  rewrite apply_op5 in H.
  destruct (apply_op_ao dbg hp hpo hd u (op5 o) u' H A) as [A'|(sty & Est & Hns)]; [exact A'|].
  exfalso. rewrite (u_scheme_type_spb u sty W Est) in Hns. rewrite Hs in Hns. discriminate Hns.
Qed.

Hypothesis HNE : NoEmpty hp.
Hypothesis HIPW : IpWf hd.

(* outside the known classes: the record is unchanged or the call is outside excl03 (auth_end_ok follows from HE) *)
Lemma known03k_false u o u' : wfh u -> HE u -> known03k u o u' = false -> u' = u \/ excl03 u o u' = false.
Proof using.
  intros K E G. exact (known03_false u o u' (known03k_known03 u o u' (he_auth_end u K E) G)).
Qed.

(* one step outside the known classes *)
Theorem inv03_step u o u' : inv03 u -> op_args_ok o -> known03k u o u' = false ->
  apply_op dbg hp hpo hd u o = Some u' -> inv03 u'.
Proof using HW HNE HIPW.
  intros (K & A & P & E) Ha G H. pose proof (IpWf_IpDisp hd HIPW) as HIP.
  destruct (known03k_false u o u' K E G) as [->|G']; [exact (conj K (conj A (conj P E)))|].
  split; [exact (step03 dbg hp hpo hd HW u o u' HIP K Ha G' H)|].
  split; [exact (as_step u o u' HIP K Ha G' H A)|].
  split; [exact (pn_step dbg hp hpo hd HW u o u' HIP K Ha G' H P)|].
  exact (he_step dbg hp hpo hd HW HNE HIPW u o u' K Ha G' H E).
Qed.

(* inv03 with one more clause X that a step outside excl03 keeps *)
Lemma inv03_and_step (X : url -> Prop) :
  (forall u o u', inv03 u -> inv03 u' -> op_args_ok o -> excl03 u o u' = false ->
     apply_op dbg hp hpo hd u o = Some u' -> X u -> X u') ->
  forall u o u', inv03 u /\ X u -> op_args_ok o -> known03k u o u' = false ->
    apply_op dbg hp hpo hd u o = Some u' -> inv03 u' /\ X u'.
Proof using HW HNE HIPW.
  intros HX u o u' [Iu Xu] Ha G H. pose proof (inv03_step u o u' Iu Ha G H) as Iu'. split; [exact Iu'|].
  destruct (known03k_false u o u' (proj1 Iu) (proj2 (proj2 (proj2 Iu))) G) as [->|G']; [exact Xu|].
  exact (HX u o u' Iu Iu' Ha G' H Xu).
Qed.
End Steps.

Lemma file_rec_inv03 P : wfh (file_rec P) -> inv03 (file_rec P).
Proof.
  intros K. split; [exact K|]. split; [|split; [apply file_rec_pn | exact (file_rec_he P (proj1 K))]].
  intros _. unfold AO. cbn. lia.
Qed.

Section Reach.
Variable dbg : bool.
Variable hp hpo : list N -> result host.
Variable hd : host -> list N.

Inductive reach03j : url -> Prop :=
| RJ_parse ovr input u : parse_url dbg hp hpo hd ovr None input = POk u -> reach03j u
| RJ_join ovr b input u : reach03j b -> parse_url dbg hp hpo hd ovr (Some b) input = POk u -> reach03j u
| RJ_file p u : bytes p -> from_file_path p = FOk u -> reach03j u
| RJ_dir p u : bytes p -> from_directory_path p = FOk u -> reach03j u
| RJ_step u o u' :
    reach03j u -> op_args_ok o -> known03k u o u' = false -> apply_op dbg hp hpo hd u o = Some u' -> reach03j u'.

(* what the parser establishes (given it of the base), the file records have and every step outside known03k keeps holds
   along reach03j *)
Lemma reach03j_closed (P : url -> Prop) :
  (forall ovr base input u, match base with Some b => P b | None => True end ->
     parse_url dbg hp hpo hd ovr base input = POk u -> P u) ->
  (forall Q, file_path_ok Q -> P (file_rec Q)) ->
  (forall u o u', P u -> op_args_ok o -> known03k u o u' = false -> apply_op dbg hp hpo hd u o = Some u' -> P u') ->
  forall u, reach03j u -> P u.
Proof.
  intros Hparse Hfile Hstep u R.
  induction R as [ovr input u Hp | ovr b input u Rb IHb Hp | p u Hb H | p u Hb H | u o u' R IH Ha G H].
  - exact (Hparse ovr None input u I Hp).
  - exact (Hparse ovr (Some b) input u IHb Hp).
  - destruct (file_ctor_rec p u Hb (or_introl H)) as (Q & -> & HQ). exact (Hfile Q HQ).
  - destruct (file_ctor_rec p u Hb (or_intror H)) as (Q & -> & HQ). exact (Hfile Q HQ).
  - exact (Hstep u o u' IH Ha G H).
Qed.

Theorem reach03j_inv : HostWf hp hpo hd -> NoEmpty hp -> IpWf hd -> forall u, reach03j u -> inv03 u.
Proof.
  intros HW HNE HIPW. apply reach03j_closed.
  - intros ovr base input u. exact (parse_url_inv03 dbg hp hpo hd ovr base input u HW).
  - intros Q HQ. exact (file_rec_inv03 Q (file_rec_wfh Q HQ)).
  - exact (inv03_step dbg hp hpo hd HW HNE HIPW).
Qed.

(* the older relations are parts of it *)
Lemma reach03k_j u : reach03k dbg hp hpo hd u -> reach03j u.
Proof.
  induction 1 as [input u Hu Hc Hp | p u Hb H | p u Hb H | u o u' R IH Ha G H].
  - exact (RJ_parse None input u Hp).
  - exact (RJ_file p u Hb H).
  - exact (RJ_dir p u Hb H).
  - exact (RJ_step u o u' IH Ha G H).
Qed.

(* and it is a part of reach03a: base_ok of a reached base and auth_end_ok of a receiver hold *)
Theorem reach03j_a : HostWf hp hpo hd -> NoEmpty hp -> IpWf hd -> forall u, reach03j u -> reach03a dbg hp hpo hd u.
Proof.
  intros HW HNE HIPW u R.
  induction R as [ovr input u Hp | ovr b input u Rb IHb Hp | p u Hb H | p u Hb H | u o u' R IH Ha G H].
  - exact (RA_parse dbg hp hpo hd ovr input u Hp).
  - destruct (reach03j_inv HW HNE HIPW b Rb) as ([Wb _] & Ab & _).
    exact (RA_join dbg hp hpo hd ovr b input u IHb (as_base_ok b Wb Ab) Hp).
  - exact (RA_file dbg hp hpo hd p u Hb H).
  - exact (RA_dir dbg hp hpo hd p u Hb H).
  - apply (RA_step dbg hp hpo hd u o u' IH Ha); [|exact H].
    destruct (reach03j_inv HW HNE HIPW u R) as (K & _ & _ & E). exact (known03k_known03 u o u' (he_auth_end u K E) G).
Qed.
End Reach.

(* the parser half of "a scheme-default port is never stored", for reach03a *)
Theorem reach03a_pn_all dbg hp hpo hd : HostWf hp hpo hd -> IpDisp hd -> forall u, reach03a dbg hp hpo hd u -> PN u.
Proof.
  intros HW HIP. pose proof (reach03a_wfh dbg hp hpo hd HW HIP) as RW. apply (reach03a_closed dbg hp hpo hd PN).
  - intros ovr input u Hp. apply (pnr_pn u (proj1 (RW u (RA_parse dbg hp hpo hd ovr input u Hp)))).
    exact (parse_url_pnr dbg hp hpo hd ovr None input u HW I Hp).
  - intros ovr b input u Rb Pb Hb Hp. pose proof (proj1 (RW b Rb)) as Wb.
    apply (pnr_pn u (proj1 (RW u (RA_join dbg hp hpo hd ovr b input u Rb Hb Hp)))).
    apply (parse_url_pnr dbg hp hpo hd ovr (Some b) input u HW); [|exact Hp].
    exact (conj Wb (conj (proj2 (proj1 (base_ok_iff b) Hb)) (proj2 (pnr_pn b Wb) Pb))).
  - intros Q _. apply file_rec_pn.
  - intros u o u' R Pu Ha G H. exact (pn_step dbg hp hpo hd HW u o u' HIP (RW u R) Ha G H Pu).
Qed.

(* a history with a file: text, joins and a path setter *)
From Coq Require Import String.
From RU Require Import Proofs.C02_AuthMain Proofs.C03_ReachEx.
Open Scope string_scope.

Ltac exj_join txt :=
  match goal with R : reach03j ?d ?hp ?hpo ?hd ?b |- _ =>
    let E := fresh "E" in let u1 := fresh "u" in let E' := fresh "E" in
    destruct (parse_url d hp hpo hd None (Some b) (B txt)) as [u1| |] eqn:E; [|vm_compute in E; discriminate ..];
    pose proof E as E'; vm_compute in E'; injection E' as <-;
    match type of E with parse_url _ _ _ _ _ _ _ = POk ?u' =>
      let R' := fresh "R" in
      assert (reach03j d hp hpo hd u') as R' by exact (RJ_join d hp hpo hd None b (B txt) u' R E);
      clear R E
    end
  end.

(* parse "file://h/a/b"; join "../c?q" -> file://h/c?q; set_path "x/../y" -> file://h/y?q;
   join "http://g:80/z" -> http://g/z (80 is the default: dropped); join "//k:81" -> http://k:81/ *)
Definition reach03j_example_stmt : Prop :=
  exists u, reach03j true ex_hp3 ex_hp ex_hd2 u /\ ser u = B "http://k:81/".

Lemma reach03j_example : reach03j_example_stmt.
Proof.
  destruct (parse_url true ex_hp3 ex_hp ex_hd2 None None (B "file://h/a/b")) as [u0| |] eqn:E0;
    [|vm_compute in E0; discriminate ..].
  assert (reach03j true ex_hp3 ex_hp ex_hd2 u0) as R0 by exact (RJ_parse true ex_hp3 ex_hp ex_hd2 None (B "file://h/a/b") u0 E0).
  vm_compute in E0. injection E0 as <-.
  exj_join "../c?q".
  hist_step RJ_step (OSetPath (B "x/../y")) usv_tac.
  exj_join "http://g:80/z".
  exj_join "//k:81".
  match goal with R : reach03j _ _ _ _ ?u |- _ => exists u end.
  split; [assumption | vm_compute; reflexivity].
Qed.
