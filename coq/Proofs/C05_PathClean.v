(* Proofs/C05_PathClean.v - what the hierarchical path states of the parser write, in EVERY context
   (URL parser, Url::set_path, path_segments_mut) and for ANY input numbers: the text in front of the
   path is kept and every byte from path_start on is outside D_PATH = ? # space dquote < > backtick { }.
   The invariant of the loop (PathInv) is stated for any class of bytes; D_PATH is the instance here,
   "no backslash for a special scheme" the one of Proofs/C05_PathSp.v.
   (Proofs/C06_PathParser.v has the same invariant for '?' / '#' only and the setter contexts only.) *)
From RU Require Import Base.Prelude Base.Utf8 Model.AsciiSet Gen.Tables Model.PercentEncoding
  Model.HostT Model.UrlRecord Model.Parser Model.Setters Model.WF
  Proofs.ListN Proofs.C05_Enc Proofs.C06_List Proofs.C06_WFI Proofs.C06_PathParser.

Definition pq (c : N) : bool := negb (existsb (N.eqb c) D_PATH).

Lemma pq_free l : forallb pq l = true -> forall d, In d D_PATH -> ~ In d l.
Proof.
  intros H d Hd Hin. rewrite forallb_forall in H. specialize (H d Hin). unfold pq in H.
  apply negb_true_iff in H. assert (existsb (N.eqb d) D_PATH = true) as X; [|congruence].
  apply existsb_exists. exists d. split; [exact Hd | apply N.eqb_refl].
Qed.

Lemma pq_no_qh c : pq c = true -> no_qh c = true.
Proof. unfold pq, D_PATH, no_qh. cbn [existsb]. lia. Qed.

Lemma path_set_covers ctx st : forallb (fun d => should_encode (path_set ctx st) d) D_PATH = true.
Proof. unfold path_set. destruct (ctx_eqb ctx CPathSegmentSetter), (st_is_special st); vm_compute; reflexivity. Qed.

(* no condition on xs *)
Lemma pq_pe_display ctx st xs : forallb pq (pe_display (path_set ctx st) xs) = true.
Proof.
  apply forallb_forall. intros c Hc.
  pose proof (pe_display_out (path_set ctx st) xs) as F. rewrite Forall_forall in F.
  destruct (F c Hc) as [[_ Hs]|[->|Hx]].
  - destruct (pq c) eqn:E; [reflexivity|]. exfalso. unfold pq in E. apply negb_false_iff in E.
    apply existsb_exists in E. destruct E as (d & Hd & E). apply N.eqb_eq in E. subst d.
    pose proof (path_set_covers ctx st) as Cv. rewrite forallb_forall in Cv. rewrite (Cv c Hd) in Hs. discriminate.
  - reflexivity.
  - unfold is_hexu, is_digit in Hx. unfold pq, D_PATH. cbn [existsb]. lia.
Qed.

Lemma pq_alpha c : is_alpha c = true -> pq c = true.
Proof. unfold is_alpha, is_upper, is_lower, pq, D_PATH. cbn [existsb]. lia. Qed.

Lemma last_slash_bound' ps s1 : last_slash_can_be_removed s1 ps = true -> ps + 1 <= nlen s1 - 1.
Proof.
  unfold last_slash_can_be_removed. destruct (rfind 47 (nfirstn (nlen s1 - 1) s1)) as [p|] eqn:E; [|discriminate].
  intros H. apply andb_true_iff in H. destruct H as [H _]. apply rfind_bound in E.
  pose proof (nlen_nfirstn_le (nlen s1 - 1) s1). lia.
Qed.

(* The invariant of the path loop, for a class `good` of bytes: the text in front of path_start is kept and
   every byte from path_start on is good.  What the loop writes itself is '/', ':' and a drive letter; the
   rest is the encoded pending segment, whose input the loop collects byte by byte: Pend is what is known of
   that input (nothing for D_PATH, whose members the path sets all cover; "no backslash unless the set
   encodes it" for C05_PathSp). *)
Section PathInv.
Variables (ps : N) (pre : list N) (good : N -> bool).
Hypothesis Hpre : nlen pre = ps.

Definition PathInv (ser : list N) : Prop := nfirstn ps ser = pre /\ forallb good (nskipn ps ser) = true.

Lemma pathinv_len ser : PathInv ser -> ps <= nlen ser.
Proof.
  intros [H _]. assert (nlen (nfirstn ps ser) = ps) as E by (rewrite H; exact Hpre).
  unfold nlen, nfirstn in *. rewrite firstn_length in E. lia.
Qed.

Lemma pathinv_app ser x : PathInv ser -> forallb good x = true -> PathInv (ser ++ x).
Proof.
  intros H Hx. pose proof (pathinv_len ser H) as L. destruct H as [H1 H2]. split.
  - rewrite nfirstn_app_le by exact L. exact H1.
  - rewrite nskipn_app_le by lia. apply forallb_app_iff. split; assumption.
Qed.

Lemma pathinv_trunc ser n : PathInv ser -> ps <= n -> PathInv (nfirstn n ser).
Proof.
  intros [H1 H2] Hn. split.
  - rewrite nfirstn_nfirstn by exact Hn. exact H1.
  - replace n with (ps + (n - ps)) by lia. rewrite nskipn_nfirstn_comm. apply forallb_nfirstn. exact H2.
Qed.

Lemma pathinv_pop_path st0 ser s' : pop_path st0 ps ser = POk s' -> PathInv ser -> PathInv s'.
Proof.
  unfold pop_path. intros H I. destruct (ps <? nlen ser); [|inversion H; subst; exact I].
  destruct (rfind 47 (nskipn ps ser)) as [sp|]; [|discriminate].
  destruct (st_is_file st0 && is_normalized_wdl (nskipn (ps + sp + 1) ser)); inversion H; subst; [exact I|].
  unfold truncate. apply pathinv_trunc; [exact I | lia].
Qed.

Lemma pathinv_shorten_path st0 ser s' : shorten_path st0 ps ser = POk s' -> PathInv ser -> PathInv s'.
Proof.
  unfold shorten_path. intros H I. destruct (nlen ser =? ps); [inversion H; subst; exact I|].
  destruct (st_is_file st0 && is_normalized_wdl (nskipn ps ser)); [inversion H; subst; exact I|].
  eapply pathinv_pop_path; eassumption.
Qed.

(* a whole path written behind `pre` *)
Lemma pathinv_start : PathInv pre.
Proof. split; [apply nfirstn_all; lia | rewrite nskipn_all by lia; reflexivity]. Qed.

Lemma pathinv_split s' : PathInv s' -> exists P, s' = pre ++ P /\ forallb good P = true.
Proof.
  intros [H1 H2]. exists (nskipn ps s'). split; [|exact H2].
  rewrite <- H1 at 1. symmetry. apply nfirstn_nskipn.
Qed.

(* the loop *)
Variables (dbg : bool) (ctx : context) (st : scheme_type).
Variable Pend : list N -> Prop.
Hypothesis good_alpha : forall c, is_alpha c = true -> good c = true.
Hypothesis good_slash : good 47 = true.
Hypothesis good_colon : good 58 = true.
Hypothesis pend_nil : Pend [].
Hypothesis pend_cons : forall c pending,
  negb (ctx_eqb ctx CPathSegmentSetter) && ((c =? 47) || (c =? 92) && st_is_special st) = false ->
  Pend pending -> Pend [c] /\ Pend (c :: pending).
Hypothesis pend_good : forall pending, Pend pending ->
  forallb good (pe_display (path_set ctx st) (utf8_encode (rev pending))) = true.

Lemma pathinv_push_pending ser pending : PathInv ser -> Pend pending -> PathInv (push_pending ctx st ser pending).
Proof.
  intros H HP. unfold push_pending. destruct pending as [|c r]; [exact H|].
  unfold push_encoded. apply pathinv_app; [exact H | exact (pend_good _ HP)].
Qed.

Lemma pathinv_finish_segment ser seg_start ews hh s' hh' :
  finish_segment dbg st ps ser seg_start ews hh = POk (s', hh') -> PathInv ser -> ps <= seg_start -> PathInv s'.
Proof.
  unfold finish_segment. intros H I Hs.
  destruct (slice_o ser seg_start (if ews then nlen ser - 1 else nlen ser)) as [seg|]; cbn [of_option pbind] in H; [|discriminate].
  destruct (is_double_dot seg).
  - match type of H with pbind ?c _ = _ => destruct c as [[]| |]; cbn [pbind] in H; try discriminate end.
    set (s1 := truncate ser seg_start) in *.
    assert (PathInv s1) as I1 by (apply pathinv_trunc; assumption).
    set (s2 := if ends_with_byte 47 s1 && last_slash_can_be_removed s1 ps then nfirstn (nlen s1 - 1) s1 else s1) in *.
    assert (PathInv s2) as I2.
    { subst s2. destruct (ends_with_byte 47 s1 && last_slash_can_be_removed s1 ps) eqn:E; [|exact I1].
      apply andb_true_iff in E. destruct E as [_ E]. apply last_slash_bound' in E.
      apply pathinv_trunc; [exact I1 | lia]. }
    destruct (shorten_path st ps s2) as [s3| |] eqn:E3; cbn [pbind] in H; try discriminate.
    pose proof (pathinv_shorten_path _ _ _ E3 I2) as I3.
    inversion H; subst. destruct (ews && negb (ends_with_byte 47 s3)); [|exact I3].
    apply pathinv_app; [exact I3 | cbn [forallb]; rewrite good_slash; reflexivity].
  - destruct (is_single_dot seg).
    + inversion H; subst. assert (PathInv (truncate ser seg_start)) as I1 by (apply pathinv_trunc; assumption).
      destruct (ends_with_byte 47 (truncate ser seg_start)); [exact I1|]. apply pathinv_app; [exact I1 | cbn [forallb]; rewrite good_slash; reflexivity].
    + destruct (st_is_file st && (seg_start =? ps + 1) && is_wdl seg) eqn:Ew; [|inversion H; subst; exact I].
      apply andb_true_iff in Ew. destruct Ew as [_ Ew]. destruct (is_wdl_head seg Ew) as (c & r & -> & Hc).
      inversion H; subst. apply pathinv_app; [apply pathinv_trunc; assumption|].
      cbn [app forallb]. rewrite (good_alpha c Hc), good_colon. destruct ews; cbn [forallb]; rewrite ?good_slash; reflexivity.
Qed.

Lemma pathinv_file_path_fixup ser : PathInv ser -> PathInv (file_path_fixup st ps ser).
Proof.
  intros I. unfold file_path_fixup. destruct (st_is_file st) eqn:E; [|exact I].
  pose proof (pathinv_len ser I) as L. destruct I as [I1 I2].
  assert (nlen (nfirstn ps ser) = ps) as Lp by (apply nlen_nfirstn; lia).
  split.
  - rewrite nfirstn_app_le by lia. rewrite nfirstn_nfirstn by lia. exact I1.
  - rewrite nskipn_app_ge by lia. rewrite Lp, N.sub_diag, nskipn_0.
    cbn [app forallb]. rewrite good_slash. apply drop_while_forallb. exact I2.
Qed.

(* the loop, any input *)
Lemma pathinv_loop l : forall ser seg_start pending hh s' hh' rem,
  parse_path_loop dbg ctx st ps l ser seg_start pending hh = POk (s', hh', rem) ->
  PathInv ser -> Pend pending -> ps <= seg_start -> PathInv s'.
Proof.
  assert (forallb good [47] = true) as G47 by (cbn [forallb]; rewrite good_slash; reflexivity).
  induction l as [|c r IH]; intros ser seg_start pending hh s' hh' rem H I HP Hs; cbn [parse_path_loop] in H.
  - destruct (finish_segment dbg st ps (push_pending ctx st ser pending) seg_start false hh) as [[s2 h2]| |] eqn:E;
      cbn [pbind] in H; try discriminate.
    inversion H; subst. apply pathinv_file_path_fixup.
    eapply pathinv_finish_segment; [exact E | apply pathinv_push_pending; assumption | exact Hs].
  - destruct (is_tnl c).
    { eapply IH; [exact H | apply pathinv_push_pending; assumption | exact pend_nil | exact Hs]. }
    destruct (negb (ctx_eqb ctx CPathSegmentSetter) && ((c =? 47) || (c =? 92) && st_is_special st)) eqn:Esep.
    { destruct (finish_segment dbg st ps (push_pending ctx st ser pending ++ [47]) seg_start true hh) as [[s2 h2]| |] eqn:E;
        cbn [pbind] in H; try discriminate.
      assert (PathInv s2) as I2.
      { eapply pathinv_finish_segment; [exact E | | exact Hs]. apply pathinv_app; [apply pathinv_push_pending; assumption | exact G47]. }
      eapply IH; [exact H | exact I2 | exact pend_nil | apply pathinv_len; exact I2]. }
    destruct (pend_cons c pending Esep HP) as [HPc HPcp].
    destruct (((c =? 63) || (c =? 35)) && ctx_eqb ctx CUrlParser).
    { destruct (finish_segment dbg st ps (push_pending ctx st ser pending) seg_start false hh) as [[s2 h2]| |] eqn:E;
        cbn [pbind] in H; try discriminate.
      inversion H; subst. apply pathinv_file_path_fixup.
      eapply pathinv_finish_segment; [exact E | apply pathinv_push_pending; assumption | exact Hs]. }
    destruct (st_is_file st && (ps <? nlen ser) && is_normalized_wdl (nskipn (ps + 1) ser)).
    { eapply IH; [exact H | | exact HPc | lia]. apply pathinv_app; [apply pathinv_push_pending; assumption | exact G47]. }
    eapply IH; [exact H | exact I | exact HPcp | exact Hs].
Qed.

Lemma pathinv_parse_path hh ser l s' hh' rem :
  parse_path dbg ctx st hh ps ser l = POk (s', hh', rem) -> PathInv ser -> PathInv s'.
Proof.
  unfold parse_path. intros H I. eapply pathinv_loop; [exact H | exact I | exact pend_nil | apply pathinv_len; exact I].
Qed.

Lemma pathinv_parse_path_start hh l s1 hh' rem :
  parse_path_start dbg ctx st hh pre l = POk (s1, hh', rem) -> PathInv s1.
Proof.
  intros H. unfold parse_path_start in H. cbv zeta in H. rewrite Hpre in H.
  pose proof pathinv_start as I0.
  assert (PathInv (pre ++ [47])) as I1 by (apply pathinv_app; [exact I0 | cbn [forallb]; rewrite good_slash; reflexivity]).
  destruct (inp_split_first l) as [mc remaining].
  revert H. case (st_is_special st); intros H.
  - destruct (negb (ends_with_byte 47 pre)).
    + destruct mc as [c|]; [destruct (is_slash_or_bslash c)|]; eapply pathinv_parse_path; eassumption.
    + eapply pathinv_parse_path; eassumption.
  - destruct mc as [c|].
    + destruct ((c =? 63) || (c =? 35)); [inversion H; subst; exact I0|].
      destruct (c =? 47); eapply pathinv_parse_path; eassumption.
    + eapply pathinv_parse_path; eassumption.
Qed.

End PathInv.


(* the instance for D_PATH *)
Definition PInvQ (ps : N) (pre ser : list N) : Prop := PathInv ps pre pq ser.

Section PathInvQ.
Variables (dbg : bool) (ps : N) (pre : list N).
Hypothesis Hpre : nlen pre = ps.

Lemma pinvq_len ser : PInvQ ps pre ser -> ps <= nlen ser.
Proof. exact (pathinv_len ps pre pq Hpre ser). Qed.

Lemma pinvq_app ser x : PInvQ ps pre ser -> forallb pq x = true -> PInvQ ps pre (ser ++ x).
Proof. exact (pathinv_app ps pre pq Hpre ser x). Qed.

Lemma pinvq_parse_path ctx st hh ser l s' hh' rem :
  parse_path dbg ctx st hh ps ser l = POk (s', hh', rem) -> PInvQ ps pre ser -> PInvQ ps pre s'.
Proof.
  exact (pathinv_parse_path ps pre pq Hpre dbg ctx st (fun _ => True) pq_alpha eq_refl eq_refl I
           (fun _ _ _ _ => conj I I) (fun p _ => pq_pe_display ctx st _) hh ser l s' hh' rem).
Qed.

End PathInvQ.

Lemma pinvq_start s0 : PInvQ (nlen s0) s0 s0.
Proof. exact (pathinv_start (nlen s0) s0 pq eq_refl). Qed.

Lemma pinvq_split s0 s' : PInvQ (nlen s0) s0 s' -> exists P, s' = s0 ++ P /\ forallb pq P = true.
Proof. exact (pathinv_split (nlen s0) s0 pq s'). Qed.

Theorem parse_path_start_clean dbg ctx st hh s0 l s1 hh' rem :
  parse_path_start dbg ctx st hh s0 l = POk (s1, hh', rem) ->
  exists P, s1 = s0 ++ P /\ forallb pq P = true.
Proof.
  intros H. apply (pathinv_split (nlen s0) s0 pq).
  exact (pathinv_parse_path_start (nlen s0) s0 pq eq_refl dbg ctx st (fun _ => True) pq_alpha eq_refl eq_refl I
           (fun _ _ _ _ => conj I I) (fun p _ => pq_pe_display ctx st _) hh l s1 hh' rem H).
Qed.
