(* Proofs/C02_Enc.v - the algebraic core of re-parsing canonical text:
   percent-encoding with one of the parser's sets is the identity on its own output, its output
   contains no tab / LF / CR, and the C0/space trimming of Input::new is the identity on text whose
   first and last characters are above U+0020. *)
From RU Require Import Base.Prelude Base.Utf8 Base.Utf8Facts Model.AsciiSet Gen.Tables Model.PercentEncoding
  Model.Parser Proofs.C14_Enc.

Definition kept (S : aset) (b : N) : bool := negb (should_encode S b).
Definition clean (S : aset) (t : list N) : bool := forallb (kept S) t.

Lemma kept_ascii S b : kept S b = true -> b < 128.
Proof. unfold kept, should_encode. destruct (128 <=? b) eqn:E; [discriminate | lia]. Qed.

Lemma clean_cons S b t : clean S (b :: t) = kept S b && clean S t.
Proof. reflexivity. Qed.

Lemma clean_app S a b : clean S (a ++ b) = clean S a && clean S b.
Proof. unfold clean. apply forallb_app. Qed.

Lemma clean_ascii S t : clean S t = true -> ascii t.
Proof.
  induction t as [|b t IH]; intros H; [constructor|].
  rewrite clean_cons in H. apply andb_true_iff in H. destruct H as [H1 H2].
  constructor; [exact (kept_ascii S b H1) | exact (IH H2)].
Qed.

(* encode_id of DESIGN B.5 *)
Theorem encode_clean S t : clean S t = true -> encode S t = t.
Proof.
  induction t as [|b t IH]; intros H; [reflexivity|].
  rewrite clean_cons in H. apply andb_true_iff in H. destruct H as [H1 H2].
  rewrite encode_cons. unfold enc1. unfold kept in H1. apply negb_true_iff in H1. rewrite H1.
  cbn [app]. f_equal. exact (IH H2).
Qed.

(* every output byte of encode is '%', an upper-case hex digit, or a kept input byte *)
Lemma encode_forallb S (Q : N -> bool) bs :
  Q 37 = true -> (forall d, d < 16 -> Q (hex_upper d) = true) ->
  Forall (fun b => should_encode S b = false -> Q b = true) bs -> bytes bs ->
  forallb Q (encode S bs) = true.
Proof.
  intros Hp Hh. induction bs as [|b r IH]; intros HQ Hby; [reflexivity|].
  inversion HQ as [|? ? Hb Hr]; subst. inversion Hby as [|? ? Bb Br]; subst.
  rewrite encode_cons, forallb_app. rewrite (IH Hr Br), andb_true_r.
  unfold enc1. destruct (should_encode S b) eqn:E.
  - unfold enc_byte_spec. cbn [forallb]. unfold is_byte in Bb.
    rewrite Hp, (Hh (b / 16)), (Hh (b mod 16)) by lia. reflexivity.
  - cbn [forallb]. rewrite (Hb eq_refl). reflexivity.
Qed.

(* the set contains neither '%' nor an upper-case hex digit *)
Definition set_stable (S : aset) : bool :=
  kept S 37 && all_below 16 (fun d => kept S (hex_upper d)).

Lemma set_stable_pct S : set_stable S = true -> kept S 37 = true.
Proof. unfold set_stable. intros H. apply andb_true_iff in H. tauto. Qed.

Lemma set_stable_hex S d : set_stable S = true -> d < 16 -> kept S (hex_upper d) = true.
Proof.
  unfold set_stable. intros H Hd. apply andb_true_iff in H. destruct H as [_ H].
  exact (all_below_spec 16 _ H d Hd).
Qed.

Theorem encode_is_clean S bs : set_stable S = true -> bytes bs -> clean S (encode S bs) = true.
Proof.
  intros HS Hby. unfold clean. apply encode_forallb.
  - apply set_stable_pct. exact HS.
  - intros d Hd. apply set_stable_hex; assumption.
  - apply Forall_forall. intros b _ E. unfold kept. rewrite E. reflexivity.
  - exact Hby.
Qed.

Theorem encode_idempotent S bs : set_stable S = true -> bytes bs ->
  encode S (encode S bs) = encode S bs.
Proof. intros HS Hby. apply encode_clean. apply encode_is_clean; assumption. Qed.

Lemma stable_CONTROLS : set_stable T_CONTROLS = true. Proof. vm_compute. reflexivity. Qed.
Lemma stable_FRAGMENT : set_stable T_FRAGMENT = true. Proof. vm_compute. reflexivity. Qed.
Lemma stable_PATH : set_stable T_PATH = true. Proof. vm_compute. reflexivity. Qed.
Lemma stable_USERINFO : set_stable T_USERINFO = true. Proof. vm_compute. reflexivity. Qed.
Lemma stable_QUERY : set_stable T_QUERY = true. Proof. vm_compute. reflexivity. Qed.
Lemma stable_SPECIAL_QUERY : set_stable T_SPECIAL_QUERY = true. Proof. vm_compute. reflexivity. Qed.
(* the two path-segment sets of the path_segments_mut editor DO contain '%': pushing a segment
   is not idempotent on already-encoded text (by design: it takes raw text) *)
Lemma unstable_PATH_SEGMENT : set_stable T_PATH_SEGMENT = false /\ set_stable T_SPECIAL_PATH_SEGMENT = false.
Proof. vm_compute. split; reflexivity. Qed.

Definition not_tnl (c : N) : bool := negb (is_tnl c).
Definition set_has_tnl (S : aset) : bool := should_encode S 9 && should_encode S 10 && should_encode S 13.

Lemma hex_upper_ge d : d < 16 -> 48 <= hex_upper d /\ hex_upper d <= 70.
Proof. unfold hex_upper. intros H. destruct (d <? 10) eqn:E; lia. Qed.

Lemma kept_not_tnl S b : set_has_tnl S = true -> kept S b = true -> not_tnl b = true.
Proof.
  unfold set_has_tnl, kept, not_tnl, is_tnl. intros HS Hk.
  apply andb_true_iff in HS. destruct HS as [HS H13]. apply andb_true_iff in HS. destruct HS as [H9 H10].
  destruct (N.eqb_spec b 9) as [->|N9]; [rewrite H9 in Hk; discriminate|].
  destruct (N.eqb_spec b 10) as [->|N10]; [rewrite H10 in Hk; discriminate|].
  destruct (N.eqb_spec b 13) as [->|N13]; [rewrite H13 in Hk; discriminate | reflexivity].
Qed.

Theorem encode_no_tnl S bs : set_has_tnl S = true -> bytes bs -> forallb not_tnl (encode S bs) = true.
Proof.
  intros HS Hby. apply encode_forallb.
  - reflexivity.
  - intros d Hd. pose proof (hex_upper_ge d Hd) as H. unfold not_tnl, is_tnl. lia.
  - apply Forall_forall. intros b _ E. apply (kept_not_tnl S b HS). unfold kept. rewrite E. reflexivity.
  - exact Hby.
Qed.

Lemma tnl_CONTROLS : set_has_tnl T_CONTROLS = true. Proof. vm_compute. reflexivity. Qed.
Lemma tnl_FRAGMENT : set_has_tnl T_FRAGMENT = true. Proof. vm_compute. reflexivity. Qed.
Lemma tnl_PATH : set_has_tnl T_PATH = true. Proof. vm_compute. reflexivity. Qed.
Lemma tnl_USERINFO : set_has_tnl T_USERINFO = true. Proof. vm_compute. reflexivity. Qed.
Lemma tnl_QUERY : set_has_tnl T_QUERY = true. Proof. vm_compute. reflexivity. Qed.
Lemma tnl_SPECIAL_QUERY : set_has_tnl T_SPECIAL_QUERY = true. Proof. vm_compute. reflexivity. Qed.

Lemma clean_no_tnl S t : set_has_tnl S = true -> clean S t = true -> forallb not_tnl t = true.
Proof.
  intros HS. unfold clean. rewrite !forallb_forall. intros H b Hb. exact (kept_not_tnl S b HS (H b Hb)).
Qed.

Lemma utf8_encode_ascii t : ascii t -> utf8_encode t = t.
Proof.
  induction t as [|c t IH]; intros H; [reflexivity|].
  inversion H as [|? ? Hc Ht]; subst. unfold utf8_encode. cbn [flat_map].
  fold (utf8_encode t). rewrite (IH Ht). unfold utf8_encode1. unfold is_ascii in Hc.
  replace (c <? 128) with true by lia. reflexivity.
Qed.

Lemma ascii_usv t : ascii t -> usv_list t.
Proof.
  intros H. eapply Forall_impl; [|exact H]. cbv beta. unfold is_ascii, is_usv. intros; lia.
Qed.

(* an ASCII byte of the UTF-8 form of a string is one of its characters *)
Lemma utf8_encode_low s b : In b (utf8_encode s) -> b < 128 -> In b s.
Proof.
  unfold utf8_encode. intros Hin Hb. apply in_flat_map in Hin. destruct Hin as (c & Hc & Hbc).
  rewrite (utf8_encode1_low c b Hbc Hb). exact Hc.
Qed.

(* encode S (utf8 s): every output byte satisfies Q when Q holds of '%', the hex digits and of
   the characters of s that the set keeps *)
Lemma encode_utf8_forallb S (Q : N -> bool) s :
  Q 37 = true -> (forall d, d < 16 -> Q (hex_upper d) = true) ->
  usv_list s -> Forall (fun c => kept S c = true -> Q c = true) s ->
  forallb Q (encode S (utf8_encode s)) = true.
Proof.
  intros Hp Hh Hs HQ. apply encode_forallb; [exact Hp | exact Hh | | apply utf8_encode_bytes; exact Hs].
  apply Forall_forall. intros b Hin E.
  assert (b < 128) as Hb by (apply (kept_ascii S); unfold kept; rewrite E; reflexivity).
  pose proof (utf8_encode_low s b Hin Hb) as Hin'.
  rewrite Forall_forall in HQ. apply (HQ b Hin'). unfold kept. rewrite E. reflexivity.
Qed.

Definition first_ok (l : list N) : Prop := match l with [] => True | c :: _ => is_c0_or_space c = false end.
Definition edge_ok (l : list N) : Prop := first_ok l /\ first_ok (rev l).

Lemma drop_while_first_ok f l : match l with [] => True | c :: _ => f c = false end -> drop_while f l = l.
Proof. destruct l as [|c r]; [reflexivity|]. cbn [drop_while]. intros ->. reflexivity. Qed.

Theorem trim_c0_id l : edge_ok l -> input_new_trim_c0 l = l.
Proof.
  intros [H1 H2]. unfold input_new_trim_c0, trim_matches.
  rewrite (drop_while_first_ok _ l H1), (drop_while_first_ok _ (rev l) H2). apply rev_involutive.
Qed.

Lemma drop_while_spec f l :
  exists a, l = a ++ drop_while f l /\ forallb f a = true
            /\ match drop_while f l with [] => True | c :: _ => f c = false end.
Proof.
  induction l as [|c r IH].
  - exists []. repeat split.
  - cbn [drop_while]. destruct (f c) eqn:E.
    + destruct IH as (a & H1 & H2 & H3). exists (c :: a). repeat split.
      * cbn [app]. f_equal. exact H1.
      * cbn [forallb]. rewrite E, H2. reflexivity.
      * exact H3.
    + exists []. repeat split. exact E.
Qed.

(* what Input::new hands to the parser has its first and last character above U+0020 *)
Theorem trim_c0_edge_ok l : edge_ok (input_new_trim_c0 l).
Proof.
  unfold input_new_trim_c0, trim_matches.
  destruct (drop_while_spec is_c0_or_space l) as (a & _ & _ & Hm).
  set (m := drop_while is_c0_or_space l) in *.
  destruct (drop_while_spec is_c0_or_space (rev m)) as (b & Hb & _ & Hd).
  set (d := drop_while is_c0_or_space (rev m)) in *.
  split.
  - assert (m = rev d ++ rev b) as Em.
    { rewrite <- rev_app_distr, <- Hb. symmetry. apply rev_involutive. }
    unfold first_ok. destruct (rev d) as [|x y] eqn:Er; [exact I|].
    rewrite Em in Hm. cbn [app] in Hm. exact Hm.
  - rewrite rev_involutive. exact Hd.
Qed.

(* the last character of a non-empty suffix is the last character of the whole *)
Lemma first_ok_rev_suffix a b : first_ok (rev (a ++ b)) -> first_ok (rev b).
Proof.
  rewrite rev_app_distr. unfold first_ok. destruct (rev b) as [|x y]; [intros _; exact I|].
  cbn [app]. tauto.
Qed.
