(* Proofs/C16_Conc.v - every schedule of atomic fetch_add steps hands out consecutive identities;
   a load/store pair does not. *)
From RU Require Import Base.Prelude Model.Origin.

(* c, c+1, ..., c+n-1 *)
Fixpoint nseq (c : N) (n : nat) : list N :=
  match n with O => [] | S k => c :: nseq (c + 1) k end.

Lemma nseq_length c n : length (nseq c n) = n.
Proof. revert c. induction n as [|n IH]; intros c; cbn [nseq length]; [reflexivity|]. now rewrite IH. Qed.

Lemma nseq_in c n x : In x (nseq c n) <-> c <= x /\ x < c + N.of_nat n.
Proof.
  revert c. induction n as [|n IH]; intros c; cbn [nseq In].
  - split; [tauto|]. lia.
  - rewrite IH. lia.
Qed.

Lemma nseq_nodup c n : NoDup (nseq c n).
Proof.
  revert c. induction n as [|n IH]; intros c; cbn [nseq]; constructor.
  - rewrite nseq_in. lia.
  - apply IH.
Qed.

Lemma nseq_app c n m : nseq c (n + m) = nseq c n ++ nseq (c + N.of_nat n) m.
Proof.
  revert c. induction n as [|n IH]; intros c; cbn [nseq Nat.add app].
  - f_equal. lia.
  - rewrite IH. do 3 f_equal. lia.
Qed.

Lemma wrap_small n : n < USIZE_MOD -> wrap_usize n = n.
Proof. intros H. unfold wrap_usize. apply N.mod_small. exact H. Qed.

Lemma run_nil op cfg : run op [] cfg = (cfg, []).
Proof. reflexivity. Qed.

Lemma run_cons op t r cfg :
  run op (t :: r) cfg =
  (fst (run op r (fst (step op t cfg))),
   match snd (step op t cfg) with
   | Some x => x :: snd (run op r (fst (step op t cfg)))
   | None => snd (run op r (fst (step op t cfg)))
   end).
Proof.
  cbn [run]. destruct (step op t cfg) as [cfg1 o]. cbn [fst snd].
  destruct (run op r cfg1) as [cfg2 ids]. reflexivity.
Qed.

(* running two segments one after the other = running their concatenation *)
Lemma run_app op s1 s2 cfg :
  run op (s1 ++ s2) cfg =
  (fst (run op s2 (fst (run op s1 cfg))), snd (run op s1 cfg) ++ snd (run op s2 (fst (run op s1 cfg)))).
Proof.
  revert cfg. induction s1 as [|t r IH]; intros cfg.
  - cbn [app]. rewrite run_nil. cbn [fst snd app]. now destruct (run op s2 cfg).
  - cbn [app]. rewrite !run_cons. rewrite IH. cbn [fst snd].
    destruct (snd (step op t cfg)); reflexivity.
Qed.

(* FetchAdd: the k-th atomic step hands out counter + k *)
Lemma step_fetch_add t cfg :
  step FetchAdd t cfg = (mkConfig (wrap_usize (counter cfg + 1)) (pending cfg), Some (t, counter cfg)).
Proof. reflexivity. Qed.

Lemma run_fetch_add s : forall cfg,
  counter cfg + N.of_nat (length s) < USIZE_MOD ->
  run FetchAdd s cfg =
  (mkConfig (counter cfg + N.of_nat (length s)) (pending cfg), combine s (nseq (counter cfg) (length s))).
Proof.
  induction s as [|t r IH]; intros cfg Hb.
  - rewrite run_nil. cbn [length nseq combine]. destruct cfg as [c p]. cbn [counter pending].
    f_equal. f_equal. cbn. lia.
  - rewrite run_cons, step_fetch_add. cbn [fst snd length] in *.
    assert (Hw : wrap_usize (counter cfg + 1) = counter cfg + 1) by (apply wrap_small; lia).
    rewrite Hw. rewrite IH by (cbn [counter]; lia).
    cbn [fst snd counter pending nseq combine]. f_equal. f_equal. lia.
Qed.

Lemma map_snd_combine (s : list N) (l : list N) :
  length s = length l -> map snd (combine s l) = l.
Proof.
  revert l. induction s as [|a s IH]; intros [|b l] H; cbn in *; try reflexivity; try discriminate.
  f_equal. apply IH. lia.
Qed.
Lemma map_fst_combine (s : list N) (l : list N) :
  length s = length l -> map fst (combine s l) = s.
Proof.
  revert l. induction s as [|a s IH]; intros [|b l] H; cbn in *; try reflexivity; try discriminate.
  f_equal. apply IH. lia.
Qed.

Lemma ids_fetch_add s cfg :
  counter cfg + N.of_nat (length s) < USIZE_MOD ->
  ids_of (run FetchAdd s cfg) = nseq (counter cfg) (length s).
Proof.
  intros Hb. unfold ids_of. rewrite run_fetch_add by exact Hb. cbn [snd].
  apply map_snd_combine. now rewrite nseq_length.
Qed.

(* stated as C16_opaque in Properties/C16.v; proved as opaque_unique below *)
Definition opaque_unique_stmt : Prop :=
  forall (s : schedule) (cfg : config),
    counter cfg + N.of_nat (length s) < USIZE_MOD ->
    let r := run FetchAdd s cfg in
    (* who gets what: the k-th scheduled step hands counter + k to the thread scheduled k-th *)
    snd r = combine s (nseq (counter cfg) (length s))
    /\ NoDup (ids_of r)
    /\ Forall (fun i => counter cfg <= i) (ids_of r)
    /\ counter (fst r) = counter cfg + N.of_nat (length s)
    (* and nothing handed out in a later segment repeats anything handed out before it *)
    /\ (forall s1 s2, s = s1 ++ s2 ->
        forall a b, In a (ids_of (run FetchAdd s1 cfg)) ->
                    In b (ids_of (run FetchAdd s2 (fst (run FetchAdd s1 cfg)))) -> a < b).

Lemma opaque_unique : opaque_unique_stmt.
Proof.
  intros s cfg Hb r. subst r.
  split; [now rewrite run_fetch_add|].
  split; [rewrite ids_fetch_add by exact Hb; apply nseq_nodup|].
  split.
  { rewrite ids_fetch_add by exact Hb. apply Forall_forall. intros x Hx. apply nseq_in in Hx. cbv beta. lia. }
  split; [now rewrite run_fetch_add|].
  intros s1 s2 -> a b Ha Hb2.
  rewrite app_length in Hb.
  rewrite ids_fetch_add in Ha by lia.
  rewrite (run_fetch_add s1 cfg) in Hb2 by lia. cbn [fst] in Hb2.
  rewrite ids_fetch_add in Hb2 by (cbn [counter]; lia). cbn [counter] in Hb2.
  apply nseq_in in Ha. apply nseq_in in Hb2. lia.
Qed.

(* LoadThenStore: two threads, one lost update *)
Definition race_stmt : Prop :=
  exists s : schedule,
    Forall (fun t => t = 0 \/ t = 1) s
    /\ (exists i, snd (run LoadThenStore s (mkConfig 0 [])) = [(0, i); (1, i)])
    /\ ~ NoDup (ids_of (run LoadThenStore s (mkConfig 0 []))).

Lemma race : race_stmt.
Proof.
  exists [0; 1; 0; 1].
  split; [repeat constructor; lia|].
  split; [exists 0; vm_compute; reflexivity|].
  assert (E : ids_of (run LoadThenStore [0; 1; 0; 1] (mkConfig 0 [])) = [0; 0]) by (vm_compute; reflexivity).
  rewrite E. intros H. inversion H as [|x l Hn Hd]. apply Hn. left. reflexivity.
Qed.

(* without interference both patterns hand out the counter value and increment it *)
Lemma solo_run op c : c + 1 < USIZE_MOD ->
  run op (solo_schedule op) (mkConfig c []) = (mkConfig (c + 1) [], [(0, c)]).
Proof.
  intros H. destruct op; cbn [solo_schedule run step counter pending lookup_pending remove_pending].
  - now rewrite wrap_small.
  - replace (0 =? 0) with true by reflexivity. cbn [remove_pending]. replace (0 =? 0) with true by reflexivity.
    now rewrite wrap_small.
Qed.

(* the wrap-around is real: the premise counter cfg + length s < USIZE_MOD of opaque_unique_stmt cannot be
   dropped.  From counter 2^64-1 the second creation receives 0, so the conjunct
   Forall (fun i => counter cfg <= i) fails (NoDup still holds for this run) *)
Lemma wrap_witness :
  ids_of (run FetchAdd [0; 0] (mkConfig (USIZE_MOD - 1) [])) = [USIZE_MOD - 1; 0].
Proof. vm_compute. reflexivity. Qed.
