(* Proofs/C03_WF.v - consequences of the structural invariant wf_b for accessors and Positions. *)
From RU Require Import Base.Prelude Model.UrlRecord Model.Parser Model.Setters Model.WF Proofs.ListN.
From RU Require Import Proofs.Decimal.

Lemma byte_eqb_nnth l i b : byte_eqb l i b = true -> nnth l i = Some b.
Proof. unfold byte_eqb. destruct (nnth l i) as [x|]; [|discriminate]. intros H. apply N.eqb_eq in H. congruence. Qed.

Lemma byte_eqb_lt l i b : byte_eqb l i b = true -> i < nlen l.
Proof. intros H. apply byte_eqb_nnth in H. eapply nnth_lt. exact H. Qed.

Lemma byte_is_of_eqb u i b : byte_eqb (ser u) i b = true -> byte_is u i b = Some true.
Proof. intros H. unfold byte_is, byte_at. rewrite (byte_eqb_nnth _ _ _ H). cbn. rewrite N.eqb_refl. reflexivity. Qed.

Lemma byte_is_eqb u i b : i < nlen (ser u) -> byte_is u i b = Some (byte_eqb (ser u) i b).
Proof.
  intros H. unfold byte_is, byte_at, byte_eqb.
  destruct (nnth (ser u) i) as [x|] eqn:E; [reflexivity|].
  exfalso. unfold nnth in E. apply nth_error_None in E. unfold nlen in H. lia.
Qed.

Definition has_password_b (u : url) : bool :=
  has_authority_b u && negb (username_end u =? nlen (ser u)) && byte_eqb (ser u) (username_end u) 58.

(* the pure index function: what position_index returns on a well-formed record (position_index_eval) *)
Definition pidx (u : url) (p : position) : N :=
  match p with
  | BeforeScheme => 0
  | AfterScheme => scheme_end u
  | BeforeUsername => if has_authority_b u then scheme_end u + 3 else scheme_end u + 1
  | AfterUsername => username_end u
  | BeforePassword => if has_password_b u then username_end u + 1 else username_end u
  | AfterPassword => if has_password_b u then host_start u - 1 else username_end u
  | BeforeHost => host_start u
  | AfterHost => host_end u
  | BeforePort => match port u with Some _ => host_end u + 1 | None => host_end u end
  | AfterPort => match port u with Some p => host_end u + 1 + count_digits p | None => host_end u end
  | BeforePath => path_start u
  | AfterPath => match query_start u, fragment_start u with
                 | Some q, _ => q | None, Some f => f | None, None => nlen (ser u) end
  | BeforeQuery => match query_start u, fragment_start u with
                   | Some q, _ => q + 1 | None, Some f => f | None, None => nlen (ser u) end
  | AfterQuery => match fragment_start u with None => nlen (ser u) | Some f => f end
  | BeforeFragment => match fragment_start u with Some f => f + 1 | None => nlen (ser u) end
  | AfterFragment => nlen (ser u)
  end.

Definition pos_rank (p : position) : nat :=
  match p with
  | BeforeScheme => 0 | AfterScheme => 1 | BeforeUsername => 2 | AfterUsername => 3
  | BeforePassword => 4 | AfterPassword => 5 | BeforeHost => 6 | AfterHost => 7
  | BeforePort => 8 | AfterPort => 9 | BeforePath => 10 | AfterPath => 11
  | BeforeQuery => 12 | AfterQuery => 13 | BeforeFragment => 14 | AfterFragment => 15
  end%nat.

Definition pos_of_rank (n : nat) : position :=
  match n with
  | 0 => BeforeScheme | 1 => AfterScheme | 2 => BeforeUsername | 3 => AfterUsername
  | 4 => BeforePassword | 5 => AfterPassword | 6 => BeforeHost | 7 => AfterHost
  | 8 => BeforePort | 9 => AfterPort | 10 => BeforePath | 11 => AfterPath
  | 12 => BeforeQuery | 13 => AfterQuery | 14 => BeforeFragment | _ => AfterFragment
  end%nat.

Lemma pos_of_rank_rank p : pos_of_rank (pos_rank p) = p.
Proof. destruct p; reflexivity. Qed.

Section WithWF.
Variable dbg : bool.
Variable u : url.
Hypothesis Hwf : wf_b u = true.

Lemma wf_parts : wf_scheme u = true
  /\ (if has_authority_b u then wf_authority u else wf_no_authority u) = true
  /\ wf_query_fragment u = true.
Proof.
  unfold wf_b in Hwf. apply andb_true_iff in Hwf. destruct Hwf as [H12 H3].
  apply andb_true_iff in H12. tauto.
Qed.

Lemma wf_scheme_facts : 1 <= scheme_end u /\ byte_eqb (ser u) (scheme_end u) 58 = true /\ scheme_end u < nlen (ser u).
Proof.
  destruct wf_parts as [H _]. unfold wf_scheme in H.
  apply andb_true_iff in H. destruct H as [H Hb].
  apply andb_true_iff in H. destruct H as [H _].
  apply andb_true_iff in H. destruct H as [H _].
  repeat split; [lia | exact Hb | apply (byte_eqb_lt _ _ _ Hb)].
Qed.

Lemma has_authority_eval : has_authority dbg u = Some (has_authority_b u).
Proof.
  destruct wf_scheme_facts as (_ & Hb & Hlt).
  unfold has_authority, u_slice_from.
  rewrite (byte_is_of_eqb _ _ _ Hb). cbn [bindo assert_o].
  rewrite slice_from_o_some by lia. cbn [bindo].
  destruct dbg; reflexivity.
Qed.

(* the facts of the two layouts, as arithmetic *)
Record auth_facts : Prop := {
  af_ue : scheme_end u + 3 <= username_end u;
  af_hs : username_end u <= host_start u;
  af_he : host_start u <= host_end u;
  af_ps : host_end u <= path_start u;
  af_len : path_start u <= nlen (ser u);
  af_userinfo :
    (username_end u = host_start u /\ byte_eqb (ser u) (username_end u) 58 = false)
    \/ (username_end u <> host_start u /\ byte_eqb (ser u) (username_end u) 58 = true
        /\ username_end u + 2 <= host_start u /\ byte_eqb (ser u) (host_start u - 1) 64 = true)
    \/ (username_end u <> host_start u /\ byte_eqb (ser u) (username_end u) 58 = false
        /\ byte_eqb (ser u) (username_end u) 64 = true /\ host_start u = username_end u + 1);
  af_port :
    match port u with
    | None => path_start u = host_end u
    | Some p => byte_eqb (ser u) (host_end u) 58 = true /\ path_start u = host_end u + 1 + nlen (decimal p) /\ p <= 65535
                /\ nfirstn (path_start u - (host_end u + 1)) (nskipn (host_end u + 1) (ser u)) = decimal p
    end
}.

Lemma wf_auth_facts : has_authority_b u = true -> auth_facts.
Proof.
  intros Ha. destruct wf_parts as (_ & H & _). rewrite Ha in H. unfold wf_authority in H.
  repeat match type of H with (_ && _) = true => apply andb_true_iff in H; let H' := fresh "K" in destruct H as [H H'] end.
  constructor; try lia.
  - (* userinfo *)
    destruct (username_end u =? host_start u) eqn:E.
    + left. split; [lia|]. apply negb_true_iff. exact K2.
    + destruct (byte_eqb (ser u) (username_end u) 58) eqn:E58.
      * right. left. apply andb_true_iff in K3. destruct K3. repeat split; [lia | lia | assumption].
      * right. right. apply andb_true_iff in K3. destruct K3. repeat split; [lia | assumption | lia].
  - destruct (port u) as [p|].
    + repeat match type of K0 with (_ && _) = true => apply andb_true_iff in K0; let H' := fresh "P" in destruct K0 as [K0 H'] end.
      repeat split; [assumption | lia | lia | apply list_eqb_spec; assumption].
    + lia.
Qed.

Record noauth_facts : Prop := {
  nf_ue : username_end u = scheme_end u + 1;
  nf_hs : host_start u = scheme_end u + 1;
  nf_he : host_end u = scheme_end u + 1;
  nf_port : port u = None;
  nf_host : hosti u = HI_None;
  nf_len : path_start u <= nlen (ser u);
  nf_ps : path_start u = scheme_end u + 1
          \/ (path_start u = scheme_end u + 3 /\ byte_eqb (ser u) (scheme_end u + 1) 47 = true
              /\ byte_eqb (ser u) (scheme_end u + 2) 46 = true /\ starts_with s_ss (nskipn (path_start u) (ser u)) = true)
}.

Lemma wf_noauth_facts : has_authority_b u = false -> noauth_facts.
Proof.
  intros Ha. destruct wf_parts as (_ & H & _). rewrite Ha in H. unfold wf_no_authority in H.
  repeat match type of H with (_ && _) = true => apply andb_true_iff in H; let H' := fresh "K" in destruct H as [H H'] end.
  constructor; try lia.
  - destruct (port u); [discriminate | reflexivity].
  - destruct (hosti u); try discriminate; reflexivity.
  - apply orb_true_iff in K. destruct K as [K|K]; [left; lia|].
    right. repeat match type of K with (_ && _) = true => apply andb_true_iff in K; let H' := fresh "Q" in destruct K as [K H'] end.
    repeat split; [lia | assumption | assumption | assumption].
Qed.

Record qf_facts : Prop := {
  qf_q : match query_start u with Some q => path_start u <= q /\ byte_eqb (ser u) q 63 = true /\ q < nlen (ser u) | None => True end;
  qf_f : match fragment_start u with Some f => path_start u <= f /\ byte_eqb (ser u) f 35 = true /\ f < nlen (ser u) | None => True end;
  qf_qf : match query_start u, fragment_start u with Some q, Some f => q < f | _, _ => True end
}.

Lemma wf_qf_facts : qf_facts.
Proof.
  destruct wf_parts as (_ & _ & H). unfold wf_query_fragment in H.
  repeat match type of H with (_ && _) = true => apply andb_true_iff in H; let H' := fresh "K" in destruct H as [H H'] end.
  constructor.
  - destruct (query_start u) as [q|]; [|exact I]. apply andb_true_iff in H. destruct H as [H1 H2].
    repeat split; [lia | exact H2 | apply (byte_eqb_lt _ _ _ H2)].
  - destruct (fragment_start u) as [f|]; [|exact I]. apply andb_true_iff in K2. destruct K2 as [H1 H2].
    repeat split; [lia | exact H2 | apply (byte_eqb_lt _ _ _ H2)].
  - destruct (query_start u), (fragment_start u); try exact I. lia.
Qed.

Lemma path_start_le_len : path_start u <= nlen (ser u).
Proof.
  destruct (has_authority_b u) eqn:Ha.
  - apply (af_len (wf_auth_facts Ha)).
  - apply (nf_len (wf_noauth_facts Ha)).
Qed.

(* a '/' at path_start belongs to the path: the byte where the path ends is '?', '#' or missing *)
Lemma slash_at_path_start : byte_eqb (ser u) (path_start u) 47 = true -> path_start u < pidx u AfterPath.
Proof.
  intros H. pose proof wf_qf_facts as QF. generalize (qf_q QF), (qf_f QF). cbn [pidx].
  assert (forall i c, c <> 47 -> byte_eqb (ser u) i c = true -> i <> path_start u) as Hne
    by (intros i c Hc B ->; apply byte_eqb_nnth in B, H; congruence).
  destruct (query_start u) as [q|]; [|destruct (fragment_start u) as [f|]].
  - intros (L & B & _) _. pose proof (Hne q 63 ltac:(discriminate) B). lia.
  - intros _ (L & B & _). pose proof (Hne f 35 ltac:(discriminate) B). lia.
  - intros _ _. exact (byte_eqb_lt _ _ _ H).
Qed.

(* what the two layouts have in common *)
Lemma wf_front_order :
  (if has_authority_b u then scheme_end u + 3 else scheme_end u + 1) <= username_end u
  /\ username_end u <= host_start u /\ host_start u <= host_end u /\ host_end u <= path_start u.
Proof.
  destruct (has_authority_b u) eqn:Ha.
  - destruct (wf_auth_facts Ha) as [H1 H2 H3 H4 _ _ _]. lia.
  - destruct (wf_noauth_facts Ha) as [H1 H2 H3 _ _ _ H7]. lia.
Qed.

Lemma wf_port_facts p : port u = Some p ->
  byte_eqb (ser u) (host_end u) 58 = true /\ path_start u = host_end u + 1 + count_digits p
  /\ nfirstn (path_start u - (host_end u + 1)) (nskipn (host_end u + 1) (ser u)) = decimal p.
Proof.
  intros E. destruct (has_authority_b u) eqn:Ha; [|rewrite (nf_port (wf_noauth_facts Ha)) in E; discriminate E].
  pose proof (af_port (wf_auth_facts Ha)) as P. rewrite E in P. destruct P as (P1 & P2 & P3 & P4).
  rewrite (count_digits_decimal p P3). tauto.
Qed.

Lemma pidx_after_port : has_authority_b u = true -> pidx u AfterPort = path_start u.
Proof.
  intros Ha. cbn [pidx]. pose proof (af_port (wf_auth_facts Ha)) as Pf. symmetry.
  destruct (port u) as [p|] eqn:Ep; [apply (wf_port_facts p Ep) | exact Pf].
Qed.

(* the length test in has_password_b is redundant: a ':' at username_end lies inside the serialization *)
Lemma has_password_b_eq : has_password_b u = has_authority_b u && byte_eqb (ser u) (username_end u) 58.
Proof.
  unfold has_password_b. destruct (byte_eqb (ser u) (username_end u) 58) eqn:E; [|rewrite !andb_false_r; reflexivity].
  apply byte_eqb_lt in E. replace (username_end u =? nlen (ser u)) with false by lia. rewrite andb_true_r. reflexivity.
Qed.

Lemma password_eval : password dbg u =
  Some (if has_password_b u
        then Some (nfirstn (host_start u - 1 - (username_end u + 1)) (nskipn (username_end u + 1) (ser u))) else None).
Proof.
  unfold password, has_password_b. rewrite has_authority_eval. cbn [bindo].
  destruct (has_authority_b u) eqn:Ha; cbn [andb]; [|reflexivity].
  pose proof (wf_auth_facts Ha) as F.
  destruct (username_end u =? nlen (ser u)) eqn:Elen; cbn [negb andb]; [reflexivity|].
  rewrite byte_is_eqb by (pose proof (af_hs F); pose proof (af_he F); pose proof (af_ps F); pose proof (af_len F); lia).
  cbn [bindo].
  destruct (af_userinfo F) as [[E1 E2]|[(E1 & E2 & E3 & E4)|(E1 & E2 & E3 & E4)]].
  - rewrite E2. reflexivity.
  - rewrite E2. rewrite (byte_is_of_eqb _ _ _ E4). cbn [bindo assert_o].
    unfold u_slice. rewrite slice_o_some; [destruct dbg; reflexivity | lia |].
    pose proof (af_he F); pose proof (af_ps F); pose proof (af_len F). lia.
  - rewrite E2. reflexivity.
Qed.

Lemma has_password_facts : has_password_b u = true ->
  username_end u + 2 <= host_start u /\ byte_eqb (ser u) (host_start u - 1) 64 = true
  /\ byte_eqb (ser u) (username_end u) 58 = true.
Proof.
  unfold has_password_b. intros H.
  apply andb_true_iff in H. destruct H as [H H58]. apply andb_true_iff in H. destruct H as [Ha _].
  destruct (af_userinfo (wf_auth_facts Ha)) as [[E1 E2]|[(E1 & E2 & E3 & E4)|(E1 & E2 & E3 & E4)]]; try congruence.
  tauto.
Qed.

(* every Position maps to an index, and the index is pidx *)
Lemma position_index_eval p : position_index dbg u p = Some (pidx u p).
Proof.
  destruct wf_scheme_facts as (Hse & Hcolon & Hselt).
  pose proof wf_qf_facts as QF.
  destruct p; unfold position_index, pidx, dbg_byte_is; try reflexivity.
  - (* BeforeUsername *)
    rewrite has_authority_eval. cbn [bindo].
    destruct (has_authority_b u) eqn:Ha; [reflexivity|].
    rewrite (byte_is_of_eqb _ _ _ Hcolon).
    pose proof (nf_ue (wf_noauth_facts Ha)) as E.
    replace (scheme_end u + 1 =? username_end u) with true by lia.
    destruct dbg; reflexivity.
  - (* BeforePassword *)
    rewrite password_eval. cbn [bindo]. destruct (has_password_b u); reflexivity.
  - (* AfterPassword *)
    rewrite password_eval. cbn [bindo].
    destruct (has_password_b u) eqn:Hp; [|reflexivity].
    destruct (has_password_facts Hp) as (H1 & H2 & _).
    replace (1 <=? host_start u) with true by lia.
    rewrite (byte_is_of_eqb _ _ _ H2). destruct dbg; reflexivity.
  - (* BeforePort *)
    destruct (port u) as [p|] eqn:Ep; [|reflexivity].
    rewrite (byte_is_of_eqb _ _ _ (proj1 (wf_port_facts p Ep))). destruct dbg; reflexivity.
  - (* AfterPort *)
    destruct (port u) as [p|] eqn:Ep; [|reflexivity].
    rewrite (byte_is_of_eqb _ _ _ (proj1 (wf_port_facts p Ep))). destruct dbg; reflexivity.
  - (* BeforeQuery *)
    pose proof (qf_q QF) as Q.
    destruct (query_start u) as [q|]; [|destruct (fragment_start u); reflexivity].
    destruct Q as (_ & Q2 & _). rewrite (byte_is_of_eqb _ _ _ Q2). destruct dbg; reflexivity.
  - (* BeforeFragment *)
    pose proof (qf_f QF) as Q.
    destruct (fragment_start u) as [f|]; [|reflexivity].
    destruct Q as (_ & Q2 & _). rewrite (byte_is_of_eqb _ _ _ Q2). destruct dbg; reflexivity.
Qed.

(* adjacent positions are ordered, each pair by one fact of the layout *)
Lemma pidx_step n : (n < 15)%nat -> pidx u (pos_of_rank n) <= pidx u (pos_of_rank (S n)).
Proof.
  intros Hn. destruct wf_front_order as (O1 & O2 & O3 & O4). pose proof wf_qf_facts as QF.
  destruct n as [|[|[|[|[|[|[|[|[|[|[|[|[|[|[|n]]]]]]]]]]]]]]]; [..|lia]; clear Hn; cbn [pos_of_rank pidx].
  - lia.
  - destruct (has_authority_b u); lia.
  - exact O1.
  - destruct (has_password_b u); lia.
  - destruct (has_password_b u) eqn:Hp; [destruct (has_password_facts Hp)|]; lia.
  - destruct (has_password_b u); lia.
  - exact O3.
  - destruct (port u); lia.
  - destruct (port u); lia.
  - destruct (port u) as [p|] eqn:Ep; [destruct (wf_port_facts p Ep) as (_ & -> & _)|]; lia.
  - generalize (qf_q QF), (qf_f QF), path_start_le_len. destruct (query_start u), (fragment_start u); lia.
  - destruct (query_start u), (fragment_start u); lia.
  - generalize (qf_q QF), (qf_qf QF). destruct (query_start u), (fragment_start u); lia.
  - destruct (fragment_start u); lia.
  - generalize (qf_f QF). destruct (fragment_start u); lia.
Qed.

Lemma pidx_mono_rank a b : (a <= b)%nat -> (b <= 15)%nat -> pidx u (pos_of_rank a) <= pidx u (pos_of_rank b).
Proof.
  intros Hab Hb. induction Hab as [|b Hab IH].
  - lia.
  - etransitivity; [apply IH; lia | apply pidx_step; lia].
Qed.

Theorem pidx_monotone p q : (pos_rank p <= pos_rank q)%nat -> pidx u p <= pidx u q.
Proof.
  intros H. rewrite <- (pos_of_rank_rank p), <- (pos_of_rank_rank q).
  apply pidx_mono_rank; [exact H | destruct q; cbn; lia].
Qed.

Theorem pidx_in_bounds p : pidx u p <= nlen (ser u).
Proof.
  change (nlen (ser u)) with (pidx u AfterFragment).
  apply pidx_monotone. destruct p; cbn; lia.
Qed.

(* all four Index forms succeed (no panic) on ordered positions and return the piece between the indices *)
Theorem index_range_eval p q : (pos_rank p <= pos_rank q)%nat ->
  index_range dbg u p q = Some (nfirstn (pidx u q - pidx u p) (nskipn (pidx u p) (ser u))).
Proof.
  intros H. unfold index_range. rewrite !position_index_eval. cbn [bindo].
  apply slice_o_some; [apply pidx_monotone; exact H | apply pidx_in_bounds].
Qed.

Theorem index_from_eval p : index_from dbg u p = Some (nskipn (pidx u p) (ser u)).
Proof. unfold index_from. rewrite position_index_eval. cbn [bindo]. apply slice_from_o_some. apply pidx_in_bounds. Qed.

Theorem index_to_eval p : index_to dbg u p = Some (nfirstn (pidx u p) (ser u)).
Proof. unfold index_to. rewrite position_index_eval. cbn [bindo]. apply slice_to_o_some. apply pidx_in_bounds. Qed.

(* consecutive Position slices re-concatenate to the serialization *)
Theorem ranges_concat p q r : (pos_rank p <= pos_rank q)%nat -> (pos_rank q <= pos_rank r)%nat ->
  forall a b c, index_range dbg u p q = Some a -> index_range dbg u q r = Some b -> index_range dbg u p r = Some c ->
  a ++ b = c.
Proof.
  intros Hpq Hqr a b c Ha Hb Hc.
  rewrite index_range_eval in Ha, Hb, Hc by lia.
  inversion Ha; inversion Hb; inversion Hc; subst.
  apply piece_app; apply pidx_monotone; assumption.
Qed.

Theorem full_range : index_range dbg u BeforeScheme AfterFragment = Some (ser u).
Proof.
  rewrite index_range_eval by (cbn; lia). cbn [pidx]. rewrite N.sub_0_r, nskipn_0, nfirstn_all by lia. reflexivity.
Qed.

End WithWF.

Arguments af_ue {u} _. Arguments af_hs {u} _. Arguments af_he {u} _. Arguments af_ps {u} _.
Arguments af_len {u} _. Arguments af_userinfo {u} _. Arguments af_port {u} _.
Arguments nf_ue {u} _. Arguments nf_hs {u} _. Arguments nf_he {u} _. Arguments nf_port {u} _.
Arguments nf_host {u} _. Arguments nf_len {u} _. Arguments nf_ps {u} _.
Arguments qf_q {u} _. Arguments qf_f {u} _. Arguments qf_qf {u} _.

(* piece u a b: the bytes [a, b) of the serialization.  Each accessor returns the piece between its two Positions. *)
Definition piece (u : url) (a b : N) : list N := nfirstn (b - a) (nskipn a (ser u)).

Lemma piece_empty u a : piece u a a = [].
Proof. unfold piece. rewrite N.sub_diag. reflexivity. Qed.

Lemma piece_byte u a x : nnth (ser u) a = Some x -> piece u a (a + 1) = [x].
Proof. intros H. unfold piece. replace (a + 1 - a) with 1 by lia. apply piece_one. exact H. Qed.

Lemma piece_cat u a b c : a <= b -> b <= c -> piece u a b ++ piece u b c = piece u a c.
Proof. apply piece_app. Qed.

Section Accessors.
Variable dbg : bool.
Variable u : url.
Hypothesis Hwf : wf_b u = true.

Let P (p : position) : N := pidx u p.

Lemma scheme_eval : scheme u = Some (piece u (P BeforeScheme) (P AfterScheme)).
Proof.
  destruct (wf_scheme_facts u Hwf) as (_ & _ & Hlt).
  unfold scheme, u_slice_to, piece, P. cbn [pidx]. rewrite slice_to_o_some by lia.
  rewrite N.sub_0_r, nskipn_0. reflexivity.
Qed.

Lemma username_eval : username dbg u = Some (piece u (P BeforeUsername) (P AfterUsername)).
Proof.
  unfold username. rewrite (has_authority_eval dbg u Hwf). cbn [bindo]. unfold P, piece. cbn [pidx].
  destruct (has_authority_b u) eqn:Ha; cbn [andb].
  - pose proof (wf_auth_facts u Hwf Ha) as F.
    pose proof (af_ue F); pose proof (af_hs F); pose proof (af_he F); pose proof (af_ps F); pose proof (af_len F).
    destruct (scheme_end u + 3 <? username_end u) eqn:E.
    + unfold u_slice. rewrite slice_o_some by lia. reflexivity.
    + replace (username_end u - (scheme_end u + 3)) with 0 by lia. reflexivity.
  - pose proof (nf_ue (wf_noauth_facts u Hwf Ha)) as E. rewrite E, N.sub_diag. reflexivity.
Qed.

Lemma authority_eval :
  authority dbg u = Some (if has_authority_b u then piece u (scheme_end u + 3) (path_start u) else []).
Proof.
  unfold authority. rewrite (has_authority_eval dbg u Hwf). cbn [bindo].
  destruct (has_authority_b u) eqn:Ha; cbn [andb]; [|reflexivity].
  destruct (wf_front_order u Hwf) as (O1 & O2 & O3 & O4). rewrite Ha in O1. pose proof (path_start_le_len u Hwf).
  destruct (N.ltb_spec (scheme_end u + 3) (path_start u)).
  - unfold u_slice. rewrite slice_o_some by lia. reflexivity.
  - replace (path_start u) with (scheme_end u + 3) by lia. rewrite piece_empty. reflexivity.
Qed.

Lemma password_piece : password dbg u =
  Some (if has_password_b u then Some (piece u (P BeforePassword) (P AfterPassword)) else None).
Proof.
  rewrite (password_eval dbg u Hwf). unfold P, piece. cbn [pidx].
  destruct (has_password_b u); reflexivity.
Qed.

Lemma host_str_eval : host_str u = Some (if has_host u then Some (piece u (P BeforeHost) (P AfterHost)) else None).
Proof.
  unfold host_str, P, piece. cbn [pidx]. destruct (has_host u); [|reflexivity].
  unfold u_slice. rewrite slice_o_some; [reflexivity | apply (wf_front_order u Hwf) | apply (pidx_in_bounds u Hwf AfterHost)].
Qed.

Lemma path_eval : path u = Some (piece u (P BeforePath) (P AfterPath)).
Proof.
  pose proof (wf_qf_facts u Hwf) as QF. pose proof (path_start_le_len u Hwf) as Hps.
  pose proof (qf_q QF) as Q1. pose proof (qf_f QF) as Q2.
  unfold path, P, piece, u_slice, u_slice_from. cbn [pidx].
  destruct (query_start u) as [q|]; [|destruct (fragment_start u) as [f|]].
  - rewrite slice_o_some by lia. reflexivity.
  - rewrite slice_o_some by lia. reflexivity.
  - rewrite slice_from_o_some by lia. rewrite nfirstn_all; [reflexivity|]. rewrite nlen_nskipn. lia.
Qed.

Lemma query_eval : query dbg u =
  Some (match query_start u with Some _ => Some (piece u (P BeforeQuery) (P AfterQuery)) | None => None end).
Proof.
  pose proof (wf_qf_facts u Hwf) as QF.
  pose proof (qf_q QF) as Q1. pose proof (qf_f QF) as Q2. pose proof (qf_qf QF) as Q3.
  unfold query, P, piece, u_slice, u_slice_from. cbn [pidx].
  destruct (query_start u) as [q|]; [|reflexivity].
  destruct Q1 as (Q1a & Q1b & Q1c). rewrite (byte_is_of_eqb _ _ _ Q1b). cbn [bindo assert_o].
  destruct (fragment_start u) as [f|].
  - rewrite slice_o_some by lia. destruct dbg; reflexivity.
  - rewrite slice_from_o_some by lia. rewrite nfirstn_all by (rewrite nlen_nskipn; lia). destruct dbg; reflexivity.
Qed.

Lemma fragment_eval : fragment dbg u =
  Some (match fragment_start u with Some _ => Some (piece u (P BeforeFragment) (P AfterFragment)) | None => None end).
Proof.
  pose proof (wf_qf_facts u Hwf) as QF. pose proof (qf_f QF) as Q2.
  unfold fragment, P, piece, u_slice_from. cbn [pidx].
  destruct (fragment_start u) as [f|]; [|reflexivity].
  destruct Q2 as (Q2a & Q2b & Q2c). rewrite (byte_is_of_eqb _ _ _ Q2b). cbn [bindo assert_o].
  rewrite slice_from_o_some by lia. rewrite nfirstn_all by (rewrite nlen_nskipn; lia). destruct dbg; reflexivity.
Qed.

(* the sixteen positions cut the serialization into fifteen consecutive pieces *)
Lemma pieces_upto n : (n <= 15)%nat ->
  piece u 0 (pidx u (pos_of_rank n)) =
  concat (map (fun k => piece u (pidx u (pos_of_rank k)) (pidx u (pos_of_rank (S k)))) (seq 0 n)).
Proof.
  induction n as [|n IH]; intros Hn.
  - cbn. apply piece_empty.
  - rewrite seq_S, map_app, concat_app, <- IH by lia. cbn [map concat Nat.add]. rewrite app_nil_r.
    symmetry. apply piece_cat; [lia | apply pidx_step; [exact Hwf | lia]].
Qed.

Theorem serialization_is_concat_of_pieces :
  ser u = concat (map (fun k => piece u (pidx u (pos_of_rank k)) (pidx u (pos_of_rank (S k)))) (seq 0 15)).
Proof.
  rewrite <- pieces_upto by lia. cbn [pos_of_rank pidx]. unfold piece.
  rewrite N.sub_0_r, nskipn_0, nfirstn_all by lia. reflexivity.
Qed.

(* the piece between an After.. Position and the next Before.. Position is the delimiter there, or empty *)
Lemma piece_scheme_sep : piece u (P AfterScheme) (P BeforeUsername) = if has_authority_b u then s_css else [58].
Proof.
  destruct (wf_scheme_facts u Hwf) as (_ & Hc & Hlt). unfold P. cbn [pidx].
  destruct (has_authority_b u) eqn:Ha.
  - unfold has_authority_b in Ha. apply starts_with_split in Ha. unfold piece.
    replace (scheme_end u + 3 - scheme_end u) with 3 by lia. rewrite Ha. reflexivity.
  - apply piece_byte. apply byte_eqb_nnth. exact Hc.
Qed.

Lemma piece_password_sep : piece u (P AfterUsername) (P BeforePassword) = if has_password_b u then [58] else [].
Proof.
  unfold P. cbn [pidx]. destruct (has_password_b u) eqn:Hp; [|apply piece_empty].
  destruct (has_password_facts u Hwf Hp) as (_ & _ & H). apply piece_byte. apply byte_eqb_nnth. exact H.
Qed.

Lemma piece_at_sep : piece u (P AfterPassword) (P BeforeHost) =
  if (has_authority_b u && negb (username_end u =? host_start u)) then [64] else [].
Proof.
  unfold P. cbn [pidx]. rewrite has_password_b_eq. destruct (has_authority_b u) eqn:Ha; cbn [andb].
  - destruct (af_userinfo (wf_auth_facts u Hwf Ha)) as [[E1 E2]|[(E1 & E2 & E3 & E4)|(E1 & E2 & E3 & E4)]]; rewrite E2.
    + rewrite E1, N.eqb_refl. apply piece_empty.
    + replace (username_end u =? host_start u) with false by lia. cbn [negb].
      replace (host_start u) with (host_start u - 1 + 1) at 2 by lia. apply piece_byte, byte_eqb_nnth, E4.
    + replace (username_end u =? host_start u) with false by lia. rewrite E4. apply piece_byte, byte_eqb_nnth, E3.
  - pose proof (wf_noauth_facts u Hwf Ha) as F. rewrite (nf_ue F), (nf_hs F). apply piece_empty.
Qed.

Lemma piece_port_sep : piece u (P AfterHost) (P BeforePort) = match port u with Some _ => [58] | None => [] end.
Proof.
  unfold P. cbn [pidx]. destruct (port u) as [p|] eqn:Ep; [|apply piece_empty].
  apply piece_byte, byte_eqb_nnth, (wf_port_facts u Hwf p Ep).
Qed.

Lemma piece_port : piece u (P BeforePort) (P AfterPort) = match port u with Some p => decimal p | None => [] end.
Proof.
  unfold P. cbn [pidx]. destruct (port u) as [p|] eqn:Ep; [|apply piece_empty].
  destruct (wf_port_facts u Hwf p Ep) as (_ & P2 & P4). rewrite <- P2. exact P4.
Qed.

(* between the port and the path there is nothing - except the "/." marker of an authority-less URL
   whose path begins with "//" *)
Lemma piece_marker : piece u (P AfterPort) (P BeforePath) =
  if negb (has_authority_b u) && (path_start u =? scheme_end u + 3) then [47; 46] else [].
Proof.
  unfold P. destruct (has_authority_b u) eqn:Ha; cbn [negb andb].
  - rewrite (pidx_after_port u Hwf Ha). apply piece_empty.
  - cbn [pidx]. pose proof (wf_noauth_facts u Hwf Ha) as F. rewrite (nf_port F), (nf_he F).
    destruct (nf_ps F) as [E|(E & B1 & B2 & _)].
    + rewrite E. replace (scheme_end u + 1 =? scheme_end u + 3) with false by lia. apply piece_empty.
    + rewrite E, N.eqb_refl.
      rewrite <- (piece_cat u (scheme_end u + 1) (scheme_end u + 2) (scheme_end u + 3)) by lia.
      replace (scheme_end u + 2) with (scheme_end u + 1 + 1) at 1 by lia.
      rewrite (piece_byte u _ 47) by (apply byte_eqb_nnth; exact B1).
      replace (scheme_end u + 3) with (scheme_end u + 2 + 1) by lia.
      rewrite (piece_byte u _ 46) by (apply byte_eqb_nnth; exact B2). reflexivity.
Qed.

Lemma piece_query_sep : piece u (P AfterPath) (P BeforeQuery) = match query_start u with Some _ => [63] | None => [] end.
Proof.
  pose proof (qf_q (wf_qf_facts u Hwf)) as Q1. unfold P. cbn [pidx].
  destruct (query_start u) as [q|]; [|destruct (fragment_start u); apply piece_empty].
  destruct Q1 as (_ & Q & _). apply piece_byte. apply byte_eqb_nnth. exact Q.
Qed.

Lemma piece_fragment_sep : piece u (P AfterQuery) (P BeforeFragment) = match fragment_start u with Some _ => [35] | None => [] end.
Proof.
  pose proof (qf_f (wf_qf_facts u Hwf)) as Q2. unfold P. cbn [pidx].
  destruct (fragment_start u) as [f|]; [|apply piece_empty].
  destruct Q2 as (_ & Q & _). apply piece_byte. apply byte_eqb_nnth. exact Q.
Qed.

Lemma piece_scheme_start : piece u (P BeforeScheme) (P AfterScheme) = nfirstn (scheme_end u) (ser u).
Proof. unfold P, piece. cbn [pidx]. rewrite N.sub_0_r. reflexivity. Qed.

(* C03: scheme ':' ['//' [username [':' password] '@'] host [':' port]] ['/.'] path ['?' query] ['#' fragment] *)
Theorem accessors_reconcatenate :
  exists sch un pw hs pth q f,
    scheme u = Some sch /\ username dbg u = Some un /\ password dbg u = Some pw /\ host_str u = Some hs
    /\ path u = Some pth /\ query dbg u = Some q /\ fragment dbg u = Some f
    /\ ser u =
       sch ++ (if has_authority_b u then s_css else [58])
       ++ un ++ (match pw with Some p => 58 :: p | None => [] end)
       ++ (if has_authority_b u && negb (username_end u =? host_start u) then [64] else [])
       ++ piece u (host_start u) (host_end u)
       ++ (match port u with Some p => 58 :: decimal p | None => [] end)
       ++ (if negb (has_authority_b u) && (path_start u =? scheme_end u + 3) then [47; 46] else [])
       ++ pth
       ++ (match q with Some x => 63 :: x | None => [] end)
       ++ (match f with Some x => 35 :: x | None => [] end)
    /\ (has_host u = true -> hs = Some (piece u (host_start u) (host_end u)))
    /\ (has_host u = false -> piece u (host_start u) (host_end u) = []).
Proof.
  do 7 eexists.
  split; [apply scheme_eval|]. split; [apply username_eval|]. split; [apply password_piece|].
  split; [apply host_str_eval|]. split; [apply path_eval|]. split; [apply query_eval|]. split; [apply fragment_eval|].
  split; [|split].
  - rewrite serialization_is_concat_of_pieces at 1.
    cbn [seq map concat pos_of_rank]. change (pidx u) with P.
    rewrite piece_scheme_sep, piece_password_sep, piece_at_sep, piece_port_sep, piece_port, piece_marker,
      piece_query_sep, piece_fragment_sep.
    unfold P. cbn [pidx].
    destruct (has_password_b u) eqn:Hp; destruct (port u) eqn:Ep; destruct (query_start u) eqn:Eq;
      destruct (fragment_start u) eqn:Ef; rewrite ?piece_empty; cbn [app]; rewrite ?app_nil_r; reflexivity.
  - intros Hh. rewrite Hh. reflexivity.
  - intros Hh. unfold has_host in Hh. destruct (hosti u) eqn:Eh; try discriminate.
    destruct (has_authority_b u) eqn:Ha.
    + destruct (wf_parts u Hwf) as (_ & H & _). rewrite Ha in H. unfold wf_authority in H.
      (* the host-kind clause of wf_authority: third conjunct from the end, before the port and path clauses *)
      do 2 (apply andb_true_iff, proj1 in H). apply andb_true_iff, proj2 in H.
      rewrite Eh in H. apply N.eqb_eq in H. rewrite H. apply piece_empty.
    + pose proof (wf_noauth_facts u Hwf Ha) as F. rewrite (nf_hs F), (nf_he F). apply piece_empty.
Qed.

End Accessors.
