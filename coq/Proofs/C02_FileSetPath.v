(* Proofs/C02_FileSetPath.v - L2 on canonical file records for the path setters:
     - loop_setter_sub_f: the setter context of the FILE path loop equals the URL-parser context on the text with '?'
       and '#' replaced by their escapes (the file case of C02_PathSetter.loop_setter_all: the drive-letter arm of the
       loop does not look at the character and cannot fire twice in a row, arm_once);
     - set_path_File: Url::set_path on a canonical file record that has a host, or with an argument that starts with
       '/' or '\\': the result outside Known_file_drive is a canonical file record;
     - q_set_pathname_File: url::quirks::set_pathname on a canonical file record, EVERY argument (the quirks setter
       puts a slash in front when there is none).
   NOT covered: Url::set_path with an argument that does not start with a slash on a file record WITHOUT a host: the
   serialization "file://" already ends with '/', parse_path_start adds none and the loop runs with the first segment
   starting AT path_start - a different invariant (see file_set_path_no_slash: there ".." does not remove the first
   segment). *)
From RU Require Import Base.Prelude Model.HostT Model.UrlRecord Model.Parser Model.Setters Proofs.C02_Parts
  Proofs.C02_Path Proofs.C02_Reach Proofs.C02_AuthParts Proofs.C02_PathSp Proofs.C02_SetQF Proofs.C02_PathSetter
  Proofs.C02_SetPath Proofs.C06_List Proofs.C02_File Proofs.C02_FileL1 Proofs.C02_FileCanon Proofs.C02_FileParse
  Proofs.C02_FileSet Proofs.C02_FileOps Proofs.C02_FileJoin.
From RU Require Proofs.C04_PathFile.
Open Scope N_scope.
Open Scope list_scope.

Section ReduceF.
Variable dbg : bool.
Variable ps : N.

Lemma arm_once ser X : (ps <? nlen ser) && is_normalized_wdl (nskipn (ps + 1) ser) = true ->
  is_normalized_wdl (nskipn (ps + 1) ((ser ++ X) ++ [47])) = false.
Proof.
  intros H. apply andb_true_iff in H. destruct H as [Hl Hw]. destruct (C04_PathFile.nwdl_inv _ Hw) as (a & Ea & _).
  assert (ps + 1 <= nlen ser) as Hle by lia.
  rewrite <- app_assoc. rewrite (nskipn_app_le (ps + 1) ser (X ++ [47]) Hle). rewrite Ea. cbn [app].
  destruct X as [|x X']; reflexivity.
Qed.

Theorem loop_setter_sub_f l : forall ser ss a b hh, usv_list l -> pend_eq a b ->
  parse_path_loop dbg CSetter STFile ps l ser ss a hh = parse_path_loop dbg CUrlParser STFile ps (qh_sub l) ser ss b hh.
Proof. exact (loop_setter_all dbg STFile ps l). Qed.
End ReduceF.

(* the argument starts with '/' or '\\' (after tab / LF / CR removal) *)
Definition lead_slash (x : list N) : bool :=
  match inp_next x with Some (c, _) => is_slash_or_bslash c | None => false end.

Section SetPathFile.
Variable dbg : bool.
Variable hp hpo : list N -> result host.
Variable hd : host -> list N.

Notation FileCanon := (FileCanon hp hd).
Notation file_curl := (file_curl hd).
Notation file_front := (file_front hd).
Notation file_ok := (file_ok hp hd).

(* the setter path loop from  front "/"  *)
Lemma setter_loop_out F l s1 hh rm : usv_list l ->
  parse_path dbg CSetter STFile true (nlen F) (F ++ [47]) l = POk (s1, hh, rm) ->
  path_good F true s1 hh \/ path_drive F true s1 hh.
Proof.
  intros Hl H. unfold parse_path in H.
  rewrite (loop_setter_sub_f dbg (nlen F) l (F ++ [47]) (nlen (F ++ [47])) [] [] true Hl pend_eq_nil) in H.
  exact (proj2 (loop_out dbg F (qh_sub l) true s1 hh rm (usv_qh_sub l Hl) H)).
Qed.

Lemma pps_setter_file ho x s1 hh rm : fhost_ok hp hd ho -> usv_list x ->
  (match ho with Some _ => true | None => false end) || lead_slash x = true ->
  parse_path_start dbg CSetter STFile true (file_front ho) x = POk (s1, hh, rm) ->
  path_good (file_front ho) true s1 hh \/ path_drive (file_front ho) true s1 hh.
Proof.
  intros Kh Hx Harg H. destruct ho as [h|].
  - destruct Kh as (_ & _ & Ht & _).
    destruct (pps_special_front dbg CSetter STFile true (file_front (Some h)) x eq_refl (host_text_last (hd h) s_file_css Ht) Hx)
      as (l & Hl & E).
    rewrite E in H. exact (setter_loop_out _ l s1 hh rm Hl H).
  - cbn [orb] in Harg. unfold lead_slash in Harg.
    unfold parse_path_start, inp_split_first in H. cbn [st_is_special] in H.
    destruct (inp_next x) as [[c r]|] eqn:En; [|discriminate Harg].
    change (ends_with_byte 47 (file_front None)) with true in H. cbn [negb] in H.
    unfold parse_path in H.
    rewrite (loop_setter_sub_f dbg (nlen (file_front None)) x (file_front None) (nlen (file_front None)) [] [] true Hx pend_eq_nil) in H.
    assert (is_qh c = false) as Hq by (unfold is_slash_or_bslash in Harg; unfold is_qh; lia).
    assert (inp_split_first (qh_sub x) = (Some c, qh_sub r)) as Es
      by (unfold inp_split_first; rewrite (inp_next_sub x c r En Hq); reflexivity).
    rewrite (loop_one_slash_g dbg (file_front None) (qh_sub x) c (qh_sub r) true Es Harg) in H.
    exact (proj2 (loop_out dbg (file_front None) (qh_sub r) true s1 hh rm (usv_qh_sub r (inp_next_usv x c r Hx En)) H)).
Qed.

Theorem set_path_file ho segs last q f x u' : file_ok ho segs last q f -> usv_list x ->
  (match ho with Some _ => true | None => false end) || lead_slash x = true ->
  set_path dbg (file_curl ho (path_text segs last) q f) x = Some u' -> nlen (ser u') <= U32_MAX_P ->
  Known_file_drive u' = false -> FileCanon u'.
Proof.
  intros K Hx Harg E Hb Hk.
  change (file_curl ho (path_text segs last) q f)
    with (qf_url ((s_file ++ 58 :: 47 :: (47 :: fhost_text hd ho)) ++ path_text segs last) (nlen s_file) 7 7 (nlen (file_front ho))
                 (fhost_hi ho) None (nlen (s_file ++ 58 :: 47 :: (47 :: fhost_text hd ho))) q f) in E.
  apply set_path_frame in E. destruct E as (s1 & hh & rm & Ep & ->).
  change (s_file ++ 58 :: 47 :: 47 :: fhost_text hd ho) with (file_front ho) in *.
  change (scheme_type_of s_file) with STFile in Ep.
  destruct K as [Kh Ksegs Klast Kfirst Kq Kf Kb1 Kbq Kbf].
  destruct (pps_setter_file ho x s1 hh rm Kh Hx Harg Ep) as [(segs' & last' & -> & G1 & G2 & G3 & _) | (a & X & Ha & ->)].
  - change (qf_url (file_front ho ++ path_text segs' last') (nlen s_file) 7 7 (nlen (file_front ho)) (fhost_hi ho) None
                   (nlen (file_front ho)) q f) with (file_curl ho (path_text segs' last') q f) in *.
    destruct (file_bounds_of_len hp hpo hd ho (path_text segs' last') q f Hb) as (_ & Bq & Bf).
    apply file_good_out; assumption.
  - exfalso.
    change (qf_url (file_front ho ++ [47; a; 58; 47] ++ X) (nlen s_file) 7 7 (nlen (file_front ho)) (fhost_hi ho) None
                   (nlen (file_front ho)) q f) with (file_curl ho ([47; a; 58; 47] ++ X) q f) in Hk.
    rewrite (drive_known hd ho a X q f Ha) in Hk. discriminate Hk.
Qed.

Lemma file_has_host ho T q f : fhost_ok hp hd ho ->
  has_host (file_curl ho T q f) = match ho with Some _ => true | None => false end.
Proof.
  destruct ho as [h|]; [|reflexivity]. intros (Hne & _). unfold has_host, C02_File.file_curl, qf_url. cbn [hosti fhost_hi].
  destruct h as [[|c d]|a|pcs]; [contradiction | reflexivity ..].
Qed.

(* Url::set_path on a canonical file record: with a host, or with an argument that starts with a slash *)
Theorem set_path_File u x u' : FileCanon u -> usv_list x -> has_host u || lead_slash x = true ->
  set_path dbg u x = Some u' -> nlen (ser u') <= U32_MAX_P -> Known_file_drive u' = false -> FileCanon u'.
Proof.
  intros [ho segs last q f K] Hx Harg E Hb Hk. rewrite (file_has_host ho _ q f (fk_host _ _ _ _ _ _ _ K)) in Harg.
  exact (set_path_file ho segs last q f x u' K Hx Harg E Hb Hk).
Qed.

Lemma lead_slash_of_match v :
  (match v with 47 :: _ => true | _ => false end) || (true && match v with 92 :: _ => true | _ => false end) = true ->
  lead_slash v = true.
Proof.
  destruct v as [|c r]; [discriminate|]. destruct c as [|p]; [discriminate|].
  repeat (destruct p as [p|p|]; try discriminate); reflexivity.
Qed.

(* url::quirks::set_pathname on a canonical file record, every argument (a slash is put in front when there is none) *)
Theorem q_set_pathname_File u v u' : FileCanon u -> usv_list v ->
  q_set_pathname dbg u v = Some u' -> nlen (ser u') <= U32_MAX_P -> Known_file_drive u' = false -> FileCanon u'.
Proof.
  intros [ho segs last q f K] Hv E Hb Hk. unfold q_set_pathname in E. rewrite file_curl_cbb in E. cbn [bindo] in E.
  unfold u_scheme_type in E. rewrite file_scheme in E. cbn [bindo] in E. change (scheme_type_of s_file) with STFile in E.
  cbn [st_is_special] in E.
  destruct ((match v with 47 :: _ => true | _ => false end) || (true && match v with 92 :: _ => true | _ => false end)) eqn:Ec.
  - apply (set_path_file ho segs last q f v u' K Hv); try assumption.
    rewrite (lead_slash_of_match v Ec). apply orb_true_r.
  - cbn [orb] in E. apply (set_path_file ho segs last q f (47 :: v) u' K); try assumption.
    + apply usv_cons. split; [left; lia | exact Hv].
    + apply orb_true_r.
Qed.
End SetPathFile.
