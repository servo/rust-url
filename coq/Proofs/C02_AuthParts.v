(* Proofs/C02_AuthParts.v - the authority states of the parser (userinfo, host, port), for every input
   (what they leave in the serialization: L1) and on canonical text (their own output: L3).
   Used by C02_Auth.v (classes (iii) and (iv) of DESIGN B.5). *)
From RU Require Import Base.Prelude Base.Utf8 Base.Utf8Facts Gen.Tables Model.PercentEncoding Model.HostT
  Model.UrlRecord Model.Parser Proofs.ListN Proofs.C02_Enc Proofs.C02_Parts Proofs.C02_Opaque Proofs.C02_Reach
  Proofs.C16_RT.
From RU Require Import Proofs.Decimal.

(* character classes of the authority *)
(* the characters that end the authority *)
Definition auth_delim (sp : bool) (c : N) : bool := (c =? 47) || (c =? 63) || (c =? 35) || ((c =? 92) && sp).
(* what the first pass of parse_userinfo walks over without effect *)
Definition plainc (sp : bool) (c : N) : bool := negb (is_tnl c) && negb (c =? 64) && negb (auth_delim sp c).
(* the remaining input after the authority: nothing, or a delimiter *)
Definition stop_ok (sp : bool) (X : list N) : Prop :=
  match X with [] => True | c :: _ => is_tnl c = false /\ auth_delim sp c = true end.

(* first pass: the last '@' *)
Lemma scan_plain sp s : forall X count last, forallb (plainc sp) s = true ->
  scan_last_at sp (s ++ X) count last = scan_last_at sp X (count + nlen s) last.
Proof.
  induction s as [|c s IH]; intros X count last H.
  - cbn [app]. rewrite nlen_nil, N.add_0_r. reflexivity.
  - cbn [forallb] in H. apply andb_true_iff in H. destruct H as [Hc Hs].
    unfold plainc, auth_delim in Hc. apply andb_true_iff in Hc. destruct Hc as [Hc H3].
    apply andb_true_iff in Hc. destruct Hc as [H1 H2]. apply negb_true_iff in H1, H2, H3.
    cbn [app scan_last_at]. rewrite H1, H2, H3. rewrite IH by exact Hs. rewrite nlen_cons. f_equal. lia.
Qed.

Lemma scan_stop sp X count last : stop_ok sp X -> scan_last_at sp X count last = last.
Proof.
  destruct X as [|c r]; [reflexivity|]. intros [Ht Hd]. cbn [scan_last_at]. rewrite Ht.
  unfold auth_delim in Hd. destruct (c =? 64) eqn:E64; [apply N.eqb_eq in E64; subst c; discriminate|].
  rewrite Hd. reflexivity.
Qed.

Lemma scan_at sp X count last : scan_last_at sp (64 :: X) count last = scan_last_at sp X (count + 1) (Some (count, X)).
Proof. reflexivity. Qed.

(* the remainder is a suffix of the input *)
Lemma scan_out sp l : forall count last n rem, usv_list l ->
  scan_last_at sp l count last = Some (n, rem) -> last = Some (n, rem) \/ usv_list rem.
Proof.
  induction l as [|c r IH]; intros count last n rem Hu H; [left; exact H|].
  apply usv_cons in Hu. destruct Hu as [Hc Hr]. cbn [scan_last_at] in H.
  destruct (is_tnl c); [exact (IH _ _ _ _ Hr H)|].
  destruct (c =? 64).
  { destruct (IH _ _ _ _ Hr H) as [E|E]; [|right; exact E]. inversion E; subst. right. exact Hr. }
  destruct ((c =? 47) || (c =? 63) || (c =? 35) || ((c =? 92) && sp)); [left; exact H|].
  exact (IH _ _ _ _ Hr H).
Qed.

Lemma scan_some sp l : forall count x, scan_last_at sp l count (Some x) <> None.
Proof.
  induction l as [|c r IH]; intros count x; [discriminate|]. cbn [scan_last_at].
  destruct (is_tnl c); [apply IH|]. destruct (c =? 64); [apply IH|].
  destruct ((c =? 47) || (c =? 63) || (c =? 35) || ((c =? 92) && sp)); [discriminate | apply IH].
Qed.

(* second pass: userinfo text *)
Inductive uinfo := UNone | UUser (u : list N) | UPw (u p : list N).
Definition ui_text (ui : uinfo) : list N :=
  match ui with UNone => [] | UUser u => u ++ [64] | UPw u p => u ++ 58 :: p ++ [64] end.
Definition ui_ulen (ui : uinfo) : N := match ui with UNone => 0 | UUser u | UPw u _ => nlen u end.
Definition ui_ok (ui : uinfo) : Prop :=
  match ui with
  | UNone => True
  | UUser u => clean T_USERINFO u = true /\ u <> []
  | UPw u p => clean T_USERINFO u = true /\ clean T_USERINFO p = true /\ p <> []
  end.

Lemma uloop_0 l ser uend pw un : userinfo_loop l 0 ser uend pw un = POk (ser, uend, pw, un).
Proof. destruct l; reflexivity. Qed.

Lemma uloop_nil n ser uend pw un : n <> 0 -> userinfo_loop [] n ser uend pw un = PPanic.
Proof. intros H. cbn [userinfo_loop]. replace (n =? 0) with false by lia. reflexivity. Qed.

Lemma uloop_tnl c r n ser uend pw un : is_tnl c = true ->
  userinfo_loop (c :: r) n ser uend pw un = userinfo_loop r n ser uend pw un.
Proof.
  intros Ht. cbn [userinfo_loop]. rewrite Ht. destruct (n =? 0) eqn:E; [|reflexivity].
  apply N.eqb_eq in E. subst n. rewrite uloop_0. reflexivity.
Qed.

Lemma uloop_cons c r n ser uend pw un : n <> 0 -> is_tnl c = false ->
  userinfo_loop (c :: r) n ser uend pw un
  = (if (c =? 58) && (match uend with None => true | Some _ => false end) then
       ue <~ to_u32 (nlen ser) ;;
       if 0 <? n - 1 then userinfo_loop r (n - 1) (ser ++ [58]) (Some ue) true un
       else userinfo_loop r (n - 1) ser (Some ue) pw un
     else userinfo_loop r (n - 1) (push_encoded T_USERINFO ser [c]) uend pw (if pw then un else true)).
Proof. intros Hn Ht. cbn [userinfo_loop]. replace (n =? 0) with false by lia. rewrite Ht. reflexivity. Qed.

Lemma kept_USERINFO_sat : kept_sat T_USERINFO (fun c => plainc true c && negb (c =? 58) && above_space c) = true.
Proof. vm_compute. reflexivity. Qed.

Lemma plainc_weaken sp c : plainc true c = true -> plainc sp c = true.
Proof.
  unfold plainc, auth_delim.
  destruct (is_tnl c), (c =? 64), (c =? 47), (c =? 63), (c =? 35), (c =? 92), sp; cbn; intros; congruence.
Qed.

Lemma clean_ui_chars u : clean T_USERINFO u = true ->
  forallb (fun c => plainc true c && negb (c =? 58) && above_space c) u = true.
Proof. apply clean_forallb. exact kept_USERINFO_sat. Qed.

Lemma clean_ui_plain sp u : clean T_USERINFO u = true -> forallb (plainc sp) u = true.
Proof.
  intros H. apply (forallb_impl (fun c => plainc true c && negb (c =? 58) && above_space c)); [|apply clean_ui_chars; exact H].
  intros c Hc. apply andb_true_iff in Hc. destruct Hc as [Hc _]. apply andb_true_iff in Hc. destruct Hc as [Hc _].
  apply plainc_weaken. exact Hc.
Qed.

Lemma push_ui_kept ser c : kept T_USERINFO c = true -> push_encoded T_USERINFO ser [c] = ser ++ [c].
Proof.
  intros Hk. assert (clean T_USERINFO [c] = true) as Hc by (unfold clean; cbn [forallb]; rewrite Hk; reflexivity).
  rewrite push_encoded_eq by exact (clean_usv _ _ Hc). rewrite (encode_utf8_clean _ _ Hc). reflexivity.
Qed.

(* L3: clean text is pushed unchanged *)
Lemma uloop_clean s : forall X m ser uend pw un, clean T_USERINFO s = true ->
  userinfo_loop (s ++ X) (nlen s + m) ser uend pw un
  = userinfo_loop X m (ser ++ s) uend pw (match s with [] => un | _ => if pw then un else true end).
Proof.
  induction s as [|c s IH]; intros X m ser uend pw un H.
  - cbn [app]. rewrite nlen_nil, N.add_0_l, app_nil_r. reflexivity.
  - pose proof (clean_ui_chars _ H) as Hch. cbn [forallb] in Hch. apply andb_true_iff in Hch. destruct Hch as [Hc _].
    apply andb_true_iff in Hc. destruct Hc as [Hc _]. apply andb_true_iff in Hc. destruct Hc as [Hp H58].
    unfold plainc in Hp. apply andb_true_iff in Hp. destruct Hp as [Hp _]. apply andb_true_iff in Hp. destruct Hp as [Ht _].
    apply negb_true_iff in Ht, H58.
    rewrite clean_cons in H. apply andb_true_iff in H. destruct H as [Hk Hs].
    cbn [app]. rewrite uloop_cons by (rewrite ?nlen_cons; lia || exact Ht). rewrite H58. cbn [andb].
    rewrite push_ui_kept by exact Hk.
    replace (nlen (c :: s) + m - 1) with (nlen s + m) by (rewrite nlen_cons; lia).
    rewrite IH by exact Hs. rewrite <- app_assoc. cbn [app]. f_equal.
    destruct s; [reflexivity|]. destruct pw; reflexivity.
Qed.

(* L1: what the loop leaves, for every input.  n = the number of characters still to come before the '@' (tab / LF / CR not counted).  The cases:
   no ':' seen yet; ':' seen and the password is, or will be, non-empty (P <> [] \/ 0 < n); the ':' was the last
   character before the '@', and an empty password is dropped (nothing written for it, pw = false, n = 0) *)
Definition uloop_state (ser0 ser : list N) (uend : option N) (pw un : bool) (n : N) : Prop :=
  (exists U, ser = ser0 ++ U /\ clean T_USERINFO U = true /\ uend = None /\ pw = false
             /\ un = match U with [] => false | _ => true end)
  \/ (exists U P, ser = ser0 ++ U ++ 58 :: P /\ clean T_USERINFO U = true /\ clean T_USERINFO P = true
                  /\ uend = Some (nlen ser0 + nlen U) /\ pw = true
                  /\ un = match U with [] => false | _ => true end /\ (P <> [] \/ 0 < n))
  \/ (exists U, ser = ser0 ++ U /\ clean T_USERINFO U = true /\ uend = Some (nlen ser0 + nlen U) /\ pw = false
                /\ un = match U with [] => false | _ => true end /\ n = 0).

Lemma enc_ui_char c : is_usv c ->
  clean T_USERINFO (encode T_USERINFO (utf8_encode [c])) = true /\ encode T_USERINFO (utf8_encode [c]) <> [].
Proof.
  intros Hc. assert (usv_list [c]) as Hu by (constructor; [exact Hc | constructor]). split.
  - apply encode_is_clean; [exact stable_USERINFO | apply utf8_encode_bytes; exact Hu].
  - apply encode_utf8_nonempty.
Qed.

Lemma app_not_nil {A} (a b : list A) : b <> [] -> a ++ b <> [].
Proof. intros H E. apply app_eq_nil in E. tauto. Qed.

Lemma match_app_not_nil {A} (a b : list A) : b <> [] ->
  match a ++ b with [] => false | _ => true end = true.
Proof. intros H. destruct (a ++ b) eqn:E; [exfalso; exact (app_not_nil a b H E) | reflexivity]. Qed.

Lemma uloop_inv ser0 l : forall n ser uend pw un ser' uend' pw' un', usv_list l ->
  uloop_state ser0 ser uend pw un n ->
  userinfo_loop l n ser uend pw un = POk (ser', uend', pw', un') ->
  uloop_state ser0 ser' uend' pw' un' 0.
Proof.
  induction l as [|c r IH]; intros n ser uend pw un ser' uend' pw' un' Hu St H.
  - destruct (N.eq_dec n 0) as [->|Hn]; [|rewrite uloop_nil in H by exact Hn; discriminate].
    rewrite uloop_0 in H. inversion H; subst. exact St.
  - apply usv_cons in Hu. destruct Hu as [Hc Hr].
    destruct (is_tnl c) eqn:Et; [rewrite uloop_tnl in H by exact Et; exact (IH _ _ _ _ _ _ _ _ _ Hr St H)|].
    destruct (N.eq_dec n 0) as [->|Hn]; [rewrite uloop_0 in H; inversion H; subst; exact St|].
    rewrite uloop_cons in H by assumption.
    destruct (enc_ui_char c Hc) as [Hcl Hne].
    assert (push_encoded T_USERINFO ser [c] = ser ++ encode T_USERINFO (utf8_encode [c])) as Hpush
      by (apply push_encoded_eq; constructor; [exact Hc | constructor]).
    destruct St as [(U & -> & HU & -> & -> & ->)|[(U & P & -> & HU & HP & -> & -> & -> & Hor)|(U & _ & _ & _ & _ & _ & Hn0)]];
      [| |contradiction].
    + (* no colon yet *)
      destruct (c =? 58) eqn:E58; cbn [andb] in H.
      * destruct (to_u32 (nlen (ser0 ++ U))) as [ue| |] eqn:Eu; cbn [pbind] in H; try discriminate.
        apply to_u32_inv in Eu. destruct Eu as [-> _]. rewrite nlen_app in H.
        destruct (0 <? n - 1) eqn:En.
        -- apply (IH _ _ _ _ _ _ _ _ _ Hr) in H; [exact H|]. right. left. exists U, [].
           rewrite <- app_assoc. repeat split; try assumption; try reflexivity. right. lia.
        -- apply (IH _ _ _ _ _ _ _ _ _ Hr) in H; [exact H|]. right. right. exists U.
           repeat split; try assumption; try reflexivity. lia.
      * rewrite Hpush in H. apply (IH _ _ _ _ _ _ _ _ _ Hr) in H; [exact H|]. left.
        exists (U ++ encode T_USERINFO (utf8_encode [c])). rewrite <- app_assoc. repeat split; try reflexivity.
        -- rewrite clean_app, HU, Hcl. reflexivity.
        -- rewrite match_app_not_nil by exact Hne. reflexivity.
    + (* after the colon *)
      rewrite andb_false_r in H. rewrite Hpush in H. apply (IH _ _ _ _ _ _ _ _ _ Hr) in H; [exact H|]. right. left.
      exists U, (P ++ encode T_USERINFO (utf8_encode [c])).
      repeat split; try assumption; try reflexivity.
      * rewrite <- !app_assoc. reflexivity.
      * rewrite clean_app, HP, Hcl. reflexivity.
      * left. apply app_not_nil. exact Hne.
Qed.

Section Userinfo.
Variable st : scheme_type.
Notation sp := (st_is_special st).

(* L1 for parse_userinfo *)
Theorem parse_userinfo_out ser l ser1 ue rem : usv_list l ->
  parse_userinfo st ser l = POk (ser1, ue, rem) ->
  exists ui, ui_ok ui /\ ser1 = ser ++ ui_text ui /\ ue = nlen ser + ui_ulen ui /\ usv_list rem.
Proof.
  intros Hu. unfold parse_userinfo.
  destruct (scan_last_at sp l 0 None) as [[n remaining]|] eqn:Es.
  2:{ destruct (to_u32 (nlen ser)) as [x| |] eqn:Eu; cbn [pbind]; try discriminate.
      apply to_u32_inv in Eu. destruct Eu as [-> Hb]. intros H. inversion H; subst.
      exists UNone. cbn [ui_ok ui_text ui_ulen]. rewrite app_nil_r, N.add_0_r. repeat split; assumption. }
  destruct (scan_out sp l 0 None n remaining Hu Es) as [E|Hrem]; [discriminate|].
  destruct n as [|pn].
  - destruct (inp_next remaining) as [[c r]|]; [|discriminate].
    destruct ((c =? 47) || (c =? 63) || (c =? 35) || (sp && (c =? 92))); [discriminate|].
    destruct (to_u32 (nlen ser)) as [x| |] eqn:Eu; cbn [pbind]; try discriminate.
    apply to_u32_inv in Eu. destruct Eu as [-> Hb]. intros H. inversion H; subst.
    exists UNone. cbn [ui_ok ui_text ui_ulen]. rewrite app_nil_r, N.add_0_r. repeat split; assumption.
  - destruct (userinfo_loop l (N.pos pn) ser None false false) as [[[[s1 uend] pw] un]| |] eqn:El; cbn [pbind]; try discriminate.
    apply (uloop_inv ser l _ _ _ _ _ _ _ _ _ Hu) in El.
    2:{ left. exists []. rewrite app_nil_r. repeat split; reflexivity. }
    (* a user name alone: "@" follows when it is not empty *)
    assert (forall U, clean T_USERINFO U = true ->
              exists ui, ui_ok ui /\ ui_ulen ui = nlen U
                         /\ (if match U with [] => false | _ => true end || false then (ser ++ U) ++ [64] else ser ++ U) = ser ++ ui_text ui) as G.
    { intros [|u0 U'] HU; [exists UNone | exists (UUser (u0 :: U'))]; cbn [ui_ok ui_text ui_ulen orb];
        rewrite ?app_nil_r, <- ?app_assoc; repeat split; try assumption. discriminate. }
    destruct El as [(U & -> & HU & -> & -> & ->)|[(U & P & -> & HU & HP & -> & -> & -> & Hor)|(U & -> & HU & -> & -> & -> & _)]].
    + destruct (to_u32 (nlen (ser ++ U))) as [x| |] eqn:Eu; cbn [pbind]; try discriminate.
      apply to_u32_inv in Eu. destruct Eu as [-> Hb]. rewrite nlen_app. intros H. inversion H; subst.
      destruct (G U HU) as (ui & Hok & <- & ->). exists ui. repeat split; assumption.
    + cbn [pbind]. intros H. inversion H; subst. rewrite orb_true_r.
      exists (UPw U P). cbn [ui_ok ui_text ui_ulen]. rewrite <- !app_assoc. cbn [app].
      assert (P <> []) as HPne by (destruct Hor as [Hor|Hor]; [exact Hor | lia]).
      repeat split; try assumption; try reflexivity.
    + cbn [pbind]. intros H. inversion H; subst.
      destruct (G U HU) as (ui & Hok & <- & ->). exists ui. repeat split; assumption.
Qed.

(* L3 for parse_userinfo: canonical userinfo text followed by text without '@' up to the next delimiter *)
Theorem parse_userinfo_canon ser ui X : ui_ok ui ->
  (forall count last, scan_last_at sp X count last = last) ->
  nlen ser + ui_ulen ui <= U32_MAX_P ->
  parse_userinfo st ser (ui_text ui ++ X) = POk (ser ++ ui_text ui, nlen ser + ui_ulen ui, X).
Proof.
  intros Hok HX Hb. unfold parse_userinfo. destruct ui as [|u|u p]; cbn [ui_ok ui_text ui_ulen] in *.
  - cbn [app]. rewrite HX. rewrite N.add_0_r in *. rewrite to_u32_ok by exact Hb. cbn [pbind]. rewrite app_nil_r. reflexivity.
  - destruct Hok as [Hu Hne]. rewrite <- app_assoc. cbn [app].
    rewrite scan_plain by (apply clean_ui_plain; exact Hu). rewrite scan_at, HX. rewrite N.add_0_l.
    destruct (nlen u) as [|pn] eqn:En; [destruct u; [contradiction | rewrite nlen_cons in En; lia]|].
    rewrite <- En. replace (nlen u) with (nlen u + 0) at 1 by lia.
    rewrite uloop_clean by exact Hu. rewrite uloop_0. cbn [pbind].
    rewrite nlen_app. rewrite to_u32_ok by lia. cbn [pbind].
    destruct u; [contradiction|]. cbn [orb]. rewrite <- app_assoc. reflexivity.
  - destruct Hok as (Hu & Hp & Hne).
    replace ((u ++ 58 :: p ++ [64]) ++ X) with ((u ++ 58 :: p) ++ 64 :: X) by (rewrite <- !app_assoc; cbn [app]; rewrite <- app_assoc; reflexivity).
    assert (forallb (plainc sp) (u ++ 58 :: p) = true) as Hpl.
    { rewrite forallb_app. cbn [forallb]. rewrite (clean_ui_plain sp u Hu), (clean_ui_plain sp p Hp).
      unfold plainc, auth_delim. destruct sp; reflexivity. }
    rewrite scan_plain by exact Hpl. rewrite scan_at, HX. rewrite N.add_0_l.
    assert (nlen (u ++ 58 :: p) = nlen u + (1 + nlen p)) as El by (rewrite nlen_app, nlen_cons; reflexivity).
    assert (0 < nlen p) as Hpp by (destruct p; [contradiction | rewrite nlen_cons; lia]).
    destruct (nlen (u ++ 58 :: p)) as [|pn] eqn:En; [lia|].
    rewrite El. rewrite <- app_assoc. rewrite uloop_clean by exact Hu.
    cbn [app]. rewrite uloop_cons by (lia || reflexivity). replace ((58 =? 58) && true) with true by reflexivity.
    rewrite nlen_app. rewrite to_u32_ok by lia. cbn [pbind].
    replace (1 + nlen p - 1) with (nlen p + 0) by lia. replace (0 <? nlen p + 0) with true by lia.
    rewrite uloop_clean by exact Hp. rewrite uloop_0. cbn [pbind]. rewrite orb_true_r.
    rewrite <- ?app_assoc. cbn [app]. rewrite <- ?app_assoc. reflexivity.
Qed.
End Userinfo.

Ltac bool_brute :=
  repeat match goal with
         | H : _ = true |- _ => revert H
         | H : _ = false |- _ => revert H
         end;
  repeat match goal with
         | |- context [N.eqb ?a ?b] => destruct (N.eqb a b)
         | |- context [is_tnl ?a] => destruct (is_tnl a)
         end;
  cbn; intros; try congruence; try tauto.

Definition host_stop (sp inside : bool) (c : N) : bool :=
  ((c =? 58) && negb inside) || ((c =? 92) && sp) || (c =? 47) || (c =? 63) || (c =? 35).

Lemma host_scan_len sp l : forall inside acc,
  (length (fst (host_scan sp inside acc l)) + length (snd (host_scan sp inside acc l)) <= length acc + length l)%nat.
Proof.
  induction l as [|c r IH]; intros inside acc; cbn [host_scan].
  - cbn [fst snd length]. rewrite rev_length. lia.
  - destruct (is_tnl c). { specialize (IH inside acc). cbn [length]. lia. }
    fold (host_stop sp inside c). destruct (host_stop sp inside c). { cbn [fst snd length]. rewrite rev_length. lia. }
    destruct (c =? 91). { specialize (IH true (c :: acc)). cbn [length] in *. lia. }
    destruct (c =? 93). { specialize (IH false (c :: acc)). cbn [length] in *. lia. }
    specialize (IH inside (c :: acc)). cbn [length] in *. lia.
Qed.

(* a text the scan returns whole contains no ignorable character and no delimiter *)
Lemma host_scan_id sp t : forall inside acc rest,
  host_scan sp inside acc (t ++ rest) = (rev acc ++ t, rest) ->
  forallb (fun c => negb (is_tnl c) && negb (auth_delim sp c)) t = true
  /\ (inside = false -> match t with c :: _ => (c =? 58) = false | [] => True end).
Proof.
  induction t as [|c t IH]; intros inside acc rest H; [split; [reflexivity | intros _; exact I]|].
  cbn [app host_scan] in H. fold (host_stop sp inside c) in H.
  destruct (is_tnl c) eqn:Et.
  { exfalso. pose proof (host_scan_len sp (t ++ rest) inside acc) as L. rewrite H in L. cbn [fst snd] in L.
    rewrite !app_length, rev_length in L. cbn [length] in L. lia. }
  destruct (host_stop sp inside c) eqn:Es.
  { exfalso. inversion H as [[H1 H2]]. apply (f_equal (@length N)) in H1. rewrite app_length, rev_length in H1.
    cbn [length] in H1. lia. }
  assert (forall ins', host_scan sp ins' (c :: acc) (t ++ rest) = (rev acc ++ c :: t, rest) ->
                       forallb (fun c => negb (is_tnl c) && negb (auth_delim sp c)) t = true) as G.
  { intros ins' H'. apply (IH ins' (c :: acc) rest). cbn [rev]. rewrite <- app_assoc. exact H'. }
  assert (negb (auth_delim sp c) = true /\ (inside = false -> (c =? 58) = false)) as [Hd H58].
  { unfold host_stop, auth_delim in *. destruct sp, inside; bool_brute. }
  split; [|exact H58]. cbn [forallb]. rewrite Et, Hd. cbn [negb andb].
  destruct (c =? 91); [exact (G _ H)|]. destruct (c =? 93); [exact (G _ H) | exact (G _ H)].
Qed.

Lemma scan_no_at t : forall count last,
  forallb (fun c => negb (is_tnl c) && negb (auth_delim true c)) t = true ->
  scan_last_at true t count last = None -> forallb (fun c => negb (c =? 64)) t = true.
Proof.
  induction t as [|c t IH]; intros count last Hf H; [reflexivity|].
  cbn [forallb] in Hf. apply andb_true_iff in Hf. destruct Hf as [Hc Hf].
  apply andb_true_iff in Hc. destruct Hc as [Ht Hd]. apply negb_true_iff in Ht, Hd.
  cbn [scan_last_at] in H. rewrite Ht in H. cbn [forallb].
  destruct (c =? 64); [exfalso; exact (scan_some _ _ _ _ H)|].
  unfold auth_delim in Hd. rewrite Hd in H. exact (IH _ _ Hf H).
Qed.

Lemma host_text_facts t : host_text_ok t ->
  forallb (plainc true) t = true /\ match t with c :: _ => (c =? 58) = false | [] => True end.
Proof.
  intros (_ & _ & Hs & Ha). specialize (Hs true [] I).
  destruct (host_scan_id true t false [] [] Hs) as [Hf H58]. split; [|exact (H58 eq_refl)].
  rewrite app_nil_r in Hs. pose proof (scan_no_at t 0 None Hf Ha) as Hat.
  rewrite forallb_forall in *. intros c Hin. specialize (Hf c Hin). specialize (Hat c Hin).
  unfold plainc. apply andb_true_iff in Hf. destruct Hf as [F1 F2]. rewrite F1, F2, Hat. reflexivity.
Qed.

Lemma host_text_scan sp t X : host_text_ok t ->
  (forall count last, scan_last_at sp X count last = last) ->
  forall count last, scan_last_at sp (t ++ X) count last = last.
Proof.
  intros Ht HX count last. destruct (host_text_facts t Ht) as [Hf _].
  rewrite scan_plain; [apply HX|]. apply (forallb_impl (plainc true)); [apply plainc_weaken | exact Hf].
Qed.

Lemma host_text_last t ser : host_text_ok t -> ends_with_byte 47 (ser ++ t) = false.
Proof.
  intros Ht. destruct (host_text_facts t Ht) as [Hf _]. destruct Ht as (_ & Hne & _).
  unfold ends_with_byte. rewrite rev_app_distr. destruct (rev t) as [|x y] eqn:E.
  - exfalso. apply Hne. rewrite <- (rev_involutive t), E. reflexivity.
  - cbn [app]. rewrite forallb_forall in Hf. assert (In x t) as Hin by (apply in_rev; rewrite E; left; reflexivity).
    specialize (Hf x Hin). unfold plainc, auth_delim in Hf. bool_brute.
Qed.

(* what host_scan leaves, for every input *)
Lemma host_scan_out sp l : forall inside acc h rem, usv_list l ->
  host_scan sp inside acc l = (h, rem) ->
  usv_list rem /\ match rem with [] => True | c :: _ => is_tnl c = false /\ ((c =? 58) || auth_delim sp c) = true end.
Proof.
  induction l as [|c r IH]; intros inside acc h rem Hu H.
  - cbn [host_scan] in H. inversion H; subst. split; [constructor | exact I].
  - pose proof Hu as Hu0. apply usv_cons in Hu. destruct Hu as [Hc Hr]. cbn [host_scan] in H.
    fold (host_stop sp inside c) in H.
    destruct (is_tnl c) eqn:Et; [exact (IH _ _ _ _ Hr H)|].
    destruct (host_stop sp inside c) eqn:Es.
    { inversion H; subst. split; [exact Hu0|]. split; [exact Et|]. unfold host_stop, auth_delim in *. destruct sp, inside; bool_brute. }
    destruct (c =? 91); [exact (IH _ _ _ _ Hr H)|]. destruct (c =? 93); exact (IH _ _ _ _ Hr H).
Qed.

Definition pe_ok (X : list N) : Prop := match X with [] => True | c :: _ => is_tnl c = false /\ is_path_end c = true end.
(* canonical remainder after the authority: nothing, '/', '?' or '#' *)
Definition tail_ok (X : list N) : Prop := match X with [] => True | c :: _ => (c =? 47) || (c =? 63) || (c =? 35) = true end.

Lemma tail_stop sp X : tail_ok X -> stop_ok sp X.
Proof. destruct X as [|c r]; [tauto|]. cbn [tail_ok stop_ok]. unfold is_tnl, auth_delim. intros H. destruct sp; split; lia. Qed.
Lemma tail_pe X : tail_ok X -> pe_ok X.
Proof. destruct X as [|c r]; [tauto|]. cbn [tail_ok pe_ok]. unfold is_tnl, is_path_end. intros H. split; lia. Qed.

Lemma port_loop_out l : forall p0 any p any' rem, usv_list l -> p0 <= 65535 ->
  parse_port_loop CUrlParser l p0 any = POk (p, any', rem) -> p <= 65535 /\ usv_list rem /\ pe_ok rem.
Proof.
  induction l as [|c r IH]; intros p0 any p any' rem Hu Hp H; cbn [parse_port_loop] in H.
  - inversion H; subst. split; [exact Hp|]. split; [constructor | exact I].
  - pose proof Hu as Hu0. apply usv_cons in Hu. destruct Hu as [Hc Hr].
    destruct (is_tnl c) eqn:Et; [exact (IH _ _ _ _ _ Hr Hp H)|].
    destruct (is_digit c).
    { destruct (65535 <? p0 * 10 + (c - 48)) eqn:Eo; [discriminate|]. apply (IH _ _ _ _ _ Hr) in H; [exact H | lia]. }
    cbn [ctx_eqb andb] in H. destruct (is_path_end c) eqn:Ee; cbn [negb] in H; [|discriminate].
    inversion H; subst. split; [exact Hp|]. split; [exact Hu0|]. split; assumption.
Qed.

Lemma port_loop_stop X p any : pe_ok X -> parse_port_loop CUrlParser X p any = POk (p, any, X).
Proof.
  destruct X as [|c r]; [reflexivity|]. intros [Ht He]. cbn [parse_port_loop]. rewrite Ht.
  assert (is_digit c = false) as Hd by (unfold is_path_end, is_digit in *; lia).
  rewrite Hd, He. reflexivity.
Qed.

Lemma port_loop_digits ds : forall p0 any p any' X, forallb is_digit ds = true ->
  parse_port_loop CUrlParser ds p0 any = POk (p, any', []) -> pe_ok X ->
  parse_port_loop CUrlParser (ds ++ X) p0 any = POk (p, any', X).
Proof.
  induction ds as [|c ds IH]; intros p0 any p any' X Hd H HX.
  - cbn [parse_port_loop] in H. inversion H; subst. cbn [app]. apply port_loop_stop. exact HX.
  - cbn [forallb] in Hd. apply andb_true_iff in Hd. destruct Hd as [Hc Hd].
    assert (is_tnl c = false) as Ht by (unfold is_digit, is_tnl in *; lia).
    cbn [app parse_port_loop] in *. rewrite Ht, Hc in *.
    destruct (65535 <? p0 * 10 + (c - 48)); [discriminate|]. exact (IH _ _ _ _ _ Hd H HX).
Qed.

Lemma opt_eqb_false p d : opt_eqb (Some p) d = false -> d <> Some p.
Proof. intros H E. subst d. cbn [opt_eqb] in H. rewrite N.eqb_refl in H. discriminate. Qed.

Lemma opt_eqb_ne p d : d <> Some p -> opt_eqb (Some p) d = false.
Proof.
  intros H. destruct d as [q|]; [|reflexivity]. cbn [opt_eqb]. apply N.eqb_neq. intros E. apply H. subst. reflexivity.
Qed.

Definition port_text (pt : option N) : list N := match pt with Some p => 58 :: decimal p | None => [] end.
Definition port_ok (dflt pt : option N) : Prop :=
  match pt with Some p => p <= 65535 /\ dflt <> Some p | None => True end.

(* L3 for parse_port *)
Lemma parse_port_canon dflt p X : p <= 65535 -> dflt <> Some p -> pe_ok X ->
  parse_port CUrlParser dflt (decimal p ++ X) = POk (Some p, X).
Proof.
  intros Hp Hd HX. unfold parse_port. destruct (port_rt p Hp) as [H1 H2].
  rewrite (port_loop_digits _ _ _ _ _ X H2 H1 HX). cbn [pbind negb andb orb].
  rewrite (opt_eqb_ne p dflt Hd). reflexivity.
Qed.

(* the display of every parsed host is above U+0020 (true of url::Host: forbidden host code points) *)
Definition host_above (hp hpo : list N -> result host) (hd : host -> list N) : Prop :=
  (forall s h, hp s = Ok h -> forallb above_space (hd h) = true)
  /\ (forall s h, hpo s = Ok h -> forallb above_space (hd h) = true).

(* the part of HostOK (C02_Reach.v) that the parser classes need: both host parsers are inverted by the
   display, whose output is a host text, and the empty host is displayed as nothing *)
Definition HostRT (hp hpo : list N -> result host) (hd : host -> list N) : Prop :=
  (forall s h, hp s = Ok h -> h <> HDomain [] -> host_text_ok (hd h) /\ hp (hd h) = Ok h)
  /\ (forall s h, hpo s = Ok h -> h <> HDomain [] -> host_text_ok (hd h) /\ hpo (hd h) = Ok h)
  /\ hd (HDomain []) = [] /\ hpo [] = Ok (HDomain []).

Lemma HostOK_RT hp hpo hd : HostOK hp hpo hd -> HostRT hp hpo hd.
Proof. intros (H1 & H2 & _ & H4 & _ & H6). split; [exact H1|]. split; [exact H2|]. split; [exact H4 | exact H6]. Qed.

Section HostPort.
Variable hp hpo : list N -> result host.
Variable hd : host -> list N.
Hypothesis HOK : HostRT hp hpo hd.
Hypothesis HAb : host_above hp hpo hd.
Variable st : scheme_type.
Hypothesis Hnf : st_is_file st = false.
Notation sp := (st_is_special st).

Definition hpx : list N -> result host := if sp then hp else hpo.

(* canonical host: the empty host of a non-special URL, or a host whose display parses back to it *)
Definition host_ok (h : host) : Prop :=
  (h = HDomain [] /\ sp = false)
  \/ (h <> HDomain [] /\ host_text_ok (hd h) /\ hpx (hd h) = Ok h /\ forallb above_space (hd h) = true).

Lemma hd_empty : hd (HDomain []) = [].
Proof. destruct HOK as (_ & _ & H & _). exact H. Qed.

Lemma hpx_host_ok s h : hpx s = Ok h -> h <> HDomain [] -> host_ok h.
Proof.
  intros H Hne. right. destruct HOK as (H1 & H2 & _). destruct HAb as [A1 A2]. unfold hpx in *. destruct sp.
  - destruct (H1 s h H Hne) as [T R]. split; [exact Hne|]. split; [exact T|]. split; [exact R | exact (A1 s h H)].
  - destruct (H2 s h H Hne) as [T R]. split; [exact Hne|]. split; [exact T|]. split; [exact R | exact (A2 s h H)].
Qed.

Definition hap_tail (se : N) (ser : list N) (host : host) (remaining : list N)
  : pres (list N * N * host_internal * option N * list N) :=
  let ser1 := ser ++ hd host in
  host_end <~ to_u32 (nlen ser1) ;;
  u_ <~ (match host with
        | HDomain [] => if inp_starts_with_char 58 remaining then PErr EmptyHost
                        else if sp then PErr EmptyHost else POk tt
        | _ => POk tt
        end) ;;
  match inp_split_prefix_char 58 remaining with
  | Some rem =>
      ' (port, rem2) <~ parse_port CUrlParser (default_port (nfirstn se ser1)) rem ;;
      POk (match port with Some p => ser1 ++ [58] ++ decimal p | None => ser1 end,
           host_end, hi_of_host host, port, rem2)
  | None => POk (ser1, host_end, hi_of_host host, None, remaining)
  end.

Lemma phap_unfold se ser l :
  parse_host_and_port hp hpo hd CUrlParser st se ser l
  = (' (host, remaining) <~ parse_host hp hpo st l ;; hap_tail se ser host remaining).
Proof. reflexivity. Qed.

Lemma parse_host_unfold l :
  parse_host hp hpo st l
  = (let '(h, rem) := host_scan sp false [] l in
     if scheme_type_eqb st STSpecialNotFile && (match h with [] => true | _ => false end) then PErr EmptyHost
     else host <~ of_result (hpx h) ;; POk (host, rem)).
Proof.
  unfold parse_host, hpx. rewrite Hnf. destruct (host_scan sp false [] l) as [h rem].
  destruct (scheme_type_eqb st STSpecialNotFile && match h with [] => true | _ :: _ => false end); [reflexivity|].
  destruct sp; reflexivity.
Qed.

(* L1 *)
Theorem phap_out se ser l ser2 he hi port rem2 : usv_list l ->
  parse_host_and_port hp hpo hd CUrlParser st se ser l = POk (ser2, he, hi, port, rem2) ->
  exists h, host_ok h /\ port_ok (default_port (nfirstn se (ser ++ hd h))) port
            /\ (h = HDomain [] -> port = None)
            /\ ser2 = ser ++ hd h ++ port_text port /\ he = nlen ser + nlen (hd h) /\ hi = hi_of_host h
            /\ usv_list rem2 /\ pe_ok rem2.
Proof.
  intros Hu. rewrite phap_unfold, parse_host_unfold.
  destruct (host_scan sp false [] l) as [ht remaining] eqn:Eh.
  destruct (host_scan_out sp l false [] ht remaining Hu Eh) as [Hur Hhead].
  destruct (scheme_type_eqb st STSpecialNotFile && match ht with [] => true | _ :: _ => false end); [discriminate|].
  destruct (hpx ht) as [h|e] eqn:Ehp; cbn [of_result pbind]; [|discriminate].
  unfold hap_tail. destruct (to_u32 (nlen (ser ++ hd h))) as [x| |] eqn:Eu; cbn [pbind]; try discriminate.
  apply to_u32_inv in Eu. destruct Eu as [-> Hb]. rewrite nlen_app.
  set (chk := match h with HDomain [] => _ | _ => POk tt end).
  destruct chk as [[]| |] eqn:Echk; cbn [pbind]; try discriminate.
  assert (host_ok h /\ (h = HDomain [] -> inp_split_prefix_char 58 remaining = None)) as [Hok Hemp].
  { destruct h as [[|d0 d]|a|pcs]; try (split; [eapply hpx_host_ok; [exact Ehp | discriminate] | discriminate]).
    unfold chk in Echk. unfold inp_starts_with_char in Echk. unfold inp_split_prefix_char.
    destruct (inp_next remaining) as [[d r]|].
    - destruct (d =? 58); [discriminate|]. destruct sp eqn:Esp; [discriminate|]. split; [left; split; [reflexivity | exact Esp] | reflexivity].
    - destruct sp eqn:Esp; [discriminate|]. split; [left; split; [reflexivity | exact Esp] | reflexivity]. }
  destruct (inp_split_prefix_char 58 remaining) as [rem|] eqn:E58.
  - assert (h <> HDomain []) as Hne by (intros E; specialize (Hemp E); discriminate).
    assert (usv_list rem) as Hurem.
    { unfold inp_split_prefix_char in E58. destruct (inp_next remaining) as [[d r]|] eqn:En; [|discriminate].
      destruct (d =? 58); [|discriminate]. inversion E58; subst. exact (inp_next_usv _ _ _ Hur En). }
    unfold parse_port.
    destruct (parse_port_loop CUrlParser rem 0 false) as [[[p any] r2]| |] eqn:El; cbn [pbind]; try discriminate.
    destruct (port_loop_out rem 0 false p any r2 Hurem ltac:(lia) El) as (Hp & Hur2 & Hpe).
    cbn [ctx_eqb andb]. rewrite andb_false_r. cbn [andb].
    destruct (negb any || opt_eqb (Some p) (default_port (nfirstn se (ser ++ hd h)))) eqn:Eo;
      intros H; inversion H; subst; clear H; exists h; (split; [exact Hok|]).
    + cbn [port_ok port_text]. rewrite app_nil_r. repeat split; try assumption; try reflexivity.
    + apply orb_false_iff in Eo. destruct Eo as [_ Eo]. cbn [port_ok port_text].
      rewrite <- app_assoc. cbn [app].
      repeat split; try assumption; try reflexivity; [exact (opt_eqb_false _ _ Eo) | intros E; contradiction].
  - intros H. inversion H; subst. clear H. exists h. split; [exact Hok|]. cbn [port_ok port_text]. rewrite app_nil_r.
    repeat split; try assumption; try reflexivity.
    destruct rem2 as [|c r]; [exact I|]. destruct Hhead as [Ht Hd]. split; [exact Ht|].
    unfold inp_split_prefix_char in E58. rewrite inp_next_cons in E58 by exact Ht.
    destruct (c =? 58) eqn:Ec; [discriminate|]. cbn [orb] in Hd.
    unfold auth_delim in Hd. unfold is_path_end. destruct sp; bool_brute.
Qed.

(* L3 *)
Lemma host_scan_tail X : tail_ok X -> host_scan sp false [] X = ([], X).
Proof.
  destruct X as [|c r]; [reflexivity|]. cbn [tail_ok]. intros H. cbn [host_scan].
  assert (is_tnl c = false) as Ht by (unfold is_tnl; lia). rewrite Ht.
  assert (((c =? 58) && negb false) || ((c =? 92) && sp) || (c =? 47) || (c =? 63) || (c =? 35) = true) as Hs
    by (destruct sp; lia).
  rewrite Hs. reflexivity.
Qed.

Lemma port_text_head pt X : tail_ok X ->
  match port_text pt ++ X with [] => True | c :: _ => (c =? 58) || (c =? 47) || (c =? 63) || (c =? 35) || ((c =? 92) && sp) = true end.
Proof.
  intros HX. destruct pt as [p|]; [reflexivity|]. cbn [port_text app]. destruct X as [|c r]; [exact I|].
  cbn [tail_ok] in HX. destruct sp; lia.
Qed.

Theorem parse_host_canon h pt X : host_ok h -> (h = HDomain [] -> pt = None) -> tail_ok X ->
  parse_host hp hpo st (hd h ++ port_text pt ++ X) = POk (h, port_text pt ++ X).
Proof.
  intros Hok Hemp HX. rewrite parse_host_unfold. destruct Hok as [[-> Hns]|(Hne & Ht & Hp & _)].
  - rewrite (Hemp eq_refl). rewrite hd_empty. cbn [port_text app]. rewrite host_scan_tail by exact HX.
    rewrite andb_true_r. assert (scheme_type_eqb st STSpecialNotFile = false) as E by (destruct st; [discriminate| discriminate |reflexivity]).
    rewrite E. unfold hpx. rewrite Hns. destruct HOK as (_ & _ & _ & H6). rewrite H6. reflexivity.
  - destruct Ht as (Ha & Hnn & Hs & Hat). rewrite (Hs sp (port_text pt ++ X) (port_text_head pt X HX)).
    destruct (hd h) as [|c0 t0] eqn:Ehd; [contradiction|]. rewrite andb_false_r.
    rewrite Hp. reflexivity.
Qed.

Theorem hap_tail_canon se ser h pt X : host_ok h -> (h = HDomain [] -> pt = None) ->
  port_ok (default_port (nfirstn se (ser ++ hd h))) pt -> tail_ok X ->
  nlen ser + nlen (hd h) <= U32_MAX_P ->
  hap_tail se ser h (port_text pt ++ X)
  = POk (ser ++ hd h ++ port_text pt, nlen ser + nlen (hd h), hi_of_host h, pt, X).
Proof.
  intros Hok Hemp Hpt HX Hb. unfold hap_tail. rewrite nlen_app. rewrite to_u32_ok by exact Hb. cbn [pbind].
  assert (tail_ok X -> inp_split_prefix_char 58 X = None /\ inp_starts_with_char 58 X = false) as HX58.
  { clear. intros HX. unfold inp_split_prefix_char, inp_starts_with_char. destruct X as [|c r]; [split; reflexivity|].
    cbn [tail_ok] in HX. rewrite inp_next_cons by (unfold is_tnl; lia). replace (c =? 58) with false by lia. split; reflexivity. }
  destruct (HX58 HX) as [E1 E2].
  set (chk := match h with HDomain [] => _ | _ => POk tt end).
  assert (chk = POk tt) as ->.
  { unfold chk. destruct Hok as [[-> Hns]|(Hne & _)].
    - rewrite (Hemp eq_refl). cbn [port_text app]. rewrite E2, Hns. reflexivity.
    - destruct h as [[|d0 d]|a|pcs]; try reflexivity. contradiction. }
  cbn [pbind]. destruct pt as [p|]; cbn [port_text port_ok] in *.
  - destruct Hpt as [Hp Hd]. cbn [app]. unfold inp_split_prefix_char at 1. rewrite inp_next_cons by reflexivity.
    replace (58 =? 58) with true by reflexivity.
    rewrite parse_port_canon by (try assumption; apply tail_pe; exact HX). cbn [pbind].
    rewrite <- app_assoc. reflexivity.
  - cbn [app]. rewrite E1. rewrite app_nil_r. reflexivity.
Qed.

End HostPort.
