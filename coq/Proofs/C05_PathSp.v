(* Proofs/C05_PathSp.v - the hierarchical path states for a SPECIAL scheme write no backslash, in every context (URL
   parser, Url::set_path, path_segments_mut) and for ANY input numbers:
     in the parser / set_path contexts '\' is a separator (it is written as '/'), so it never reaches the pending
       segment text - and the encoder only writes '%', hex digits and bytes of its input that are below 128;
     in the path_segments_mut context the encode set is SPECIAL_PATH_SEGMENT, which contains '\'.
   nb c := c <> '\'.  The loop invariant is C05_PathClean.PathInv for nb; what it needs to know of the pending segment
   text is Pend below. *)
From RU Require Import Base.Prelude Base.Utf8 Model.AsciiSet Gen.Tables Model.PercentEncoding
  Model.HostT Model.UrlRecord Model.Parser Model.Setters Model.WF
  Proofs.ListN Proofs.C05_Enc Proofs.C06_List Proofs.C06_WFI Proofs.C06_PathParser Proofs.C03_ReachParts Proofs.C05_PathClean.

Definition nb (c : N) : bool := negb (c =? 92).

Lemma nb_alpha c : is_alpha c = true -> nb c = true.
Proof. unfold is_alpha, is_upper, is_lower, nb. lia. Qed.

Lemma nb_not_in l : forallb nb l = true -> ~ In 92 l.
Proof. intros H Hin. rewrite forallb_forall in H. specialize (H 92 Hin). discriminate H. Qed.

Lemma in92_utf8 l : In 92 (utf8_encode l) -> In 92 l.
Proof.
  unfold utf8_encode. intros H. apply in_flat_map in H. destruct H as (c & Hc & H).
  destruct (N.ltb_spec c 128) as [L|L].
  - unfold utf8_encode1 in H. replace (c <? 128) with true in H by lia. destruct H as [<-|[]]. exact Hc.
  - pose proof (utf8_encode1_high c L) as F. rewrite Forall_forall in F. specialize (F 92 H). lia.
Qed.

(* the encoder writes a backslash only if its set leaves it alone and the text contains one *)
Lemma nb_pe_display S text : (should_encode S 92 = true \/ ~ In 92 text) ->
  forallb nb (pe_display S (utf8_encode text)) = true.
Proof.
  intros H. apply forallb_forall. intros c Hc.
  pose proof (pe_display_out S (utf8_encode text)) as F. rewrite Forall_forall in F.
  destruct (F c Hc) as [[Hin Hs]|[->|Hx]].
  - unfold nb. destruct (N.eqb_spec c 92) as [->|Hne]; [|reflexivity]. exfalso.
    destruct H as [H|H]; [congruence | exact (H (in92_utf8 text Hin))].
  - reflexivity.
  - unfold is_hexu, is_digit in Hx. unfold nb. lia.
Qed.

Definition PInvB (ps : N) (pre ser : list N) : Prop := PathInv ps pre nb ser.

Section PathInvB.
Variables (dbg : bool) (ps : N) (pre : list N) (ctx : context) (st : scheme_type).
Hypothesis Hpre : nlen pre = ps.
Hypothesis Hsp : st_is_special st = true.

(* the pending segment text: no backslash unless the context is path_segments_mut *)
Definition Pend (pending : list N) : Prop := ctx_eqb ctx CPathSegmentSetter = true \/ ~ In 92 pending.

Lemma pend_cons c pending :
  negb (ctx_eqb ctx CPathSegmentSetter) && ((c =? 47) || (c =? 92) && st_is_special st) = false ->
  Pend pending -> Pend [c] /\ Pend (c :: pending).
Proof.
  intros Esep HP. destruct (ctx_eqb ctx CPathSegmentSetter) eqn:Ectx; [split; left; exact Ectx|].
  assert (c <> 92) as Hc by (intros ->; rewrite Hsp in Esep; discriminate Esep).
  destruct HP as [HP|HP]; [rewrite Ectx in HP; discriminate HP|].
  split; right; intros Hin; [destruct Hin as [X|[]]; congruence|]. destruct Hin as [X|X]; [congruence | exact (HP X)].
Qed.

Lemma pend_nb pending : Pend pending ->
  forallb nb (pe_display (path_set ctx st) (utf8_encode (rev pending))) = true.
Proof.
  intros HP. apply nb_pe_display. destruct HP as [E|HP].
  - left. unfold path_set. rewrite E, Hsp. vm_compute. reflexivity.
  - right. intros Hin. apply HP. apply in_rev. exact Hin.
Qed.

Lemma pinvb_parse_path hh ser l s' hh' rem :
  parse_path dbg ctx st hh ps ser l = POk (s', hh', rem) -> PInvB ps pre ser -> PInvB ps pre s'.
Proof.
  exact (pathinv_parse_path ps pre nb Hpre dbg ctx st Pend nb_alpha eq_refl eq_refl (or_intror (fun H => H))
           pend_cons pend_nb hh ser l s' hh' rem).
Qed.

Lemma pinvb_parse_path_start hh l s1 hh' rem :
  parse_path_start dbg ctx st hh pre l = POk (s1, hh', rem) -> PInvB ps pre s1.
Proof.
  exact (pathinv_parse_path_start ps pre nb Hpre dbg ctx st Pend nb_alpha eq_refl eq_refl (or_intror (fun H => H))
           pend_cons pend_nb hh l s1 hh' rem).
Qed.

End PathInvB.

(* a whole path written behind s0, special scheme *)
Theorem parse_path_start_nb dbg ctx st hh s0 l s1 hh' rem : st_is_special st = true ->
  parse_path_start dbg ctx st hh s0 l = POk (s1, hh', rem) ->
  exists P, s1 = s0 ++ P /\ forallb nb P = true.
Proof.
  intros Hsp H. apply (pathinv_split (nlen s0) s0 nb).
  exact (pinvb_parse_path_start dbg (nlen s0) s0 ctx st eq_refl Hsp hh l s1 hh' rem H).
Qed.
