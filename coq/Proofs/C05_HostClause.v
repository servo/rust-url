(* Proofs/C05_HostClause.v - the last sentence of the property text ("special-scheme hosts are lower-case and free of
   forbidden host code points") as an invariant of the mutators, relative to a hypothesis on what the host parser of
   special schemes returns.
   HostSpQ hp hd Q : every host other than the empty one that hp (Host::parse) returns, and every address value, is
                     displayed as a text that satisfies Q.
   HC Q u          : if the scheme of u is special, what Url::host_str() returns satisfies Q.
   hc_step / hc_qpm: HC is kept by every step_gate3 step of the 19 mutators and by query_pairs_mut sessions - the host
                     text stays, disappears, or is the Display of a host that the parser OF THE SCHEME CLASS returned
                     (a special URL never gets its host from Host::parse_opaque: frame_step3), and the scheme class can
                     only go from special to special.
   GHistF          : histories of gated steps and sessions from a start record; hc_history.
   hc_parse        : HC for every parse result, from HC of the base (C05_HostParse.parse_url_host: the host text of a
                     parse result is the Display of a host the parser of the scheme class returned, or the host text of
                     a base of the same scheme class).
   creachF_hc      : HC for every record of CReachF. *)
From RU Require Import Base.Prelude Base.Utf8 Model.AsciiSet Gen.Tables Model.PercentEncoding
  Model.HostT Model.UrlRecord Model.Parser Model.Setters Model.WF Model.FormUrlencoded Model.QueryPairs
  Proofs.ListN Proofs.C03_WF Proofs.C05_Enc Proofs.C05_Parser Proofs.C05_Setters Proofs.C05_History
  Proofs.C05_Comp Proofs.C05_CompSteps Proofs.C06_Host Proofs.C06_Main Proofs.C03_ReachParts
  Proofs.C05_CompSteps2 Proofs.C05_CompReach Proofs.C05_CompSteps3 Proofs.C05_Alphabet Proofs.C05_AuthOfs
  Proofs.C05_HostText Proofs.C15_Ser Proofs.C05_Qpm Proofs.C05_ReachF Proofs.C05_BaseOk Proofs.C05_HostParse Proofs.C06_Suffix.

Section HostClause.
Variable dbg : bool.
Variable hp hpo : list N -> result host.
Variable hd : host -> list N.
Variable Q : list N -> Prop.

Definition HostSpQ : Prop :=
  (forall s h, hp s = Ok h -> h <> HDomain [] -> Q (hd h)) /\ (forall h, ip_arg h -> Q (hd h)).

Definition HC (u : url) : Prop := spb u = true -> HTx Q u.

Hypothesis HQ : HostSpQ.

Lemma hc_frame u u' : FR hp hpo hd u u' -> HC u -> HC u'.
Proof.
  intros [Fs Fh] H Hs' s Hs. pose proof (Fs Hs') as Hsp.
  destruct Fh as [E|[E|(h & E & Hne & Ho)]].
  - rewrite E in Hs. exact (H Hsp s Hs).
  - rewrite E in Hs. discriminate.
  - rewrite E in Hs. inversion Hs; subst s. destruct HQ as [Q1 Q2].
    destruct Ho as [Ho|Ho]; [exact (Q2 h Ho)|]. rewrite Hsp in Ho. destruct Ho as [s0 E0]. exact (Q1 s0 h E0 Hne).
Qed.

Hypothesis HW : HostWf hp hpo hd.
Hypothesis HI : IpDisp hd.

Theorem hc_step u o u' : CInv dbg u -> step_gate3 hp hpo hd u o u' -> apply_op dbg hp hpo hd u o = Some u' ->
  HC u -> HC u'.
Proof. intros K G H. exact (hc_frame u u' (frame_step3 dbg hp hpo hd HW u o u' HI K G H)). Qed.

Theorem hc_qpm u ops u' : CInv dbg u -> Forall ok_or_space (ser u) -> Forall op_ok ops ->
  query_pairs_session dbg u ops = Some u' -> HC u -> HC u'.
Proof.
  intros K O Hops H Hc. pose proof K as [[W _] _].
  destruct (qpm_inv dbg u ops u' K O Hops H) as ([[W' _] _] & _ & _ & Es & Eh).
  apply (hc_frame u u'); [|exact Hc]. exact (fr_sh hp hpo hd u u' (sh_same u u' W W' Es Eh)).
Qed.

(* histories of gated steps and sessions *)
Inductive GHistF : url -> url -> Prop :=
| GF_refl u : GHistF u u
| GF_step u o u1 u2 : step_gate3 hp hpo hd u o u1 -> apply_op dbg hp hpo hd u o = Some u1 -> GHistF u1 u2 -> GHistF u u2
| GF_qpm u ops u1 u2 : Forall op_ok ops -> query_pairs_session dbg u ops = Some u1 -> GHistF u1 u2 -> GHistF u u2.

Hypothesis HOK : HostOK hp hpo hd.
Hypothesis HV : IpOKv hd.

Theorem hc_history u u' : GHistF u u' -> FInv dbg u -> HC u -> FInv dbg u' /\ HC u'.
Proof.
  induction 1 as [u | u o u1 u2 G H _ IH | u ops u1 u2 Hops H _ IH]; intros F Hc.
  - split; assumption.
  - apply IH.
    + exact (finv_step dbg hp hpo hd HW HOK HI HV u o u1 F G H).
    + exact (hc_step u o u1 (proj1 F) G H Hc).
  - apply IH.
    + exact (finv_qpm dbg u ops u1 F Hops H).
    + destruct F as (K & _ & O & _). exact (hc_qpm u ops u1 K O Hops H Hc).
Qed.

Theorem hc_parse ovr base input u : wf_b u = true ->
  match base with Some b => wf_b b = true /\ host_text_ok b /\ bk b /\ HC b | None => True end ->
  parse_url dbg hp hpo hd ovr base input = POk u -> HC u.
Proof.
  intros W Hb Hp Hs s Hstr.
  rewrite (host_str_ht u W) in Hstr. destruct (has_host u) eqn:Ehh; [|discriminate]. inversion Hstr; subst s. clear Hstr.
  assert (match base with Some b => wf_b b = true /\ host_text_ok b /\ bk b | None => True end) as Hb3
    by (destruct base as [b|]; [tauto | exact I]).
  destruct (parse_url_host dbg hp hpo hd ovr HW base input u Hb3 Hp) as [A|[(h & Hne & Ho & Eh)|(b & Eb & Hn & Eh & Esp)]].
  - unfold has_host in Ehh. rewrite A in Ehh. discriminate.
  - rewrite Eh. rewrite Hs in Ho. destruct Ho as [s0 E0]. exact (proj1 HQ s0 h E0 Hne).
  - rewrite Eb in Hb. destruct Hb as (Wb & _ & _ & Hcb). rewrite Eh. apply Hcb; [rewrite <- Esp; exact Hs|].
    rewrite (host_str_ht b Wb). unfold has_host. destruct (hosti b); [contradiction | reflexivity ..].
Qed.

(* every record of CReachF *)
Theorem creachF_hc u : CReachF dbg hp hpo hd u -> HC u.
Proof.
  intros R. assert (FInv dbg u /\ HC u) as [_ X]; [|exact X].
  induction R as [ovr input u Hp | ovr b input u Rb IHb Hp | u o u' R IH G H | u ops u' R IH Hops H].
  - pose proof (finv_parse dbg hp hpo hd HW HOK ovr None input u I Hp) as F. split; [exact F|].
    destruct F as ([[W _] _] & _). exact (hc_parse ovr None input u W I Hp).
  - destruct IHb as [Fb Hcb]. pose proof (finv_parse dbg hp hpo hd HW HOK ovr (Some b) input u Fb Hp) as F. split; [exact F|].
    destruct F as ([[W _] _] & _). apply (hc_parse ovr (Some b) input u W); [|exact Hp].
    destruct Fb as ([[Wb HTb] _] & Ab & _). split; [exact Wb|]. split; [exact HTb|]. split; [exact (as_bk b Wb Ab) | exact Hcb].
  - destruct IH as [F Hc]. split; [exact (finv_step dbg hp hpo hd HW HOK HI HV u o u' F G H)|].
    exact (hc_step u o u' (proj1 F) G H Hc).
  - destruct IH as [F Hc]. split; [exact (finv_qpm dbg u ops u' F Hops H)|].
    destruct F as (K & _ & O & _). exact (hc_qpm u ops u' K O Hops H Hc).
Qed.

End HostClause.
