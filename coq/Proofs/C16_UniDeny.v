(* Proofs/C16_UniDeny.v - C16, the two hypotheses (P1), (P2) of uni_host_rt_origin (Proofs/C16_UniHost.v; stated as
   C16_unicode_host in Properties/C16.v), proved for every name that ToASCII accepts at the URL deny list.
   (P1) ToUnicode at the EMPTY deny list and ToUnicode at the URL deny list give the same result: p1_empty_url (stated as
        C16_unicode_deny_lists).  origin.rs displays a domain with idna::domain_to_unicode = ToUnicode at the EMPTY deny
        list, Host::parse accepted it with ToASCII at the URL deny list.  deny_sub: an error-free fail-fast run of
        process_inner at a deny list is the run at every SMALLER deny list (Sub) that still denies the upper-case letters
        (the deny list is only consulted by apply_upper / apply_lower; a character that is denied at the larger list and
        is not an upper-case letter is an error there; a character that passes the larger list passes the smaller one
        unchanged).  Hence ToUnicode at the two lists is the same result for every name that ToASCII accepts at the
        larger list (to_ui_sub), and DENY_EMPTY is such a sub-list of DENY_URL (sub_empty_url).
   (P2) the UTF-8 form of the Unicode form has no byte '%' and the Unicode form does not start with '[': p2_url (stated
        as C16_unicode_form_clean).  unicode_form_okc: every ASCII character of the Unicode form of an accepted name is
        outside the deny list (every character of the displayed text is a dot, or passes the deny list, or is the
        lower-case form of an input character that passes it); '%' and '[' are on the URL deny list
        (url_denies_pct_bracket).
   uni_host_rt_full (stated as C16_unicode_host_full): uni_host_rt_origin with (P1) and (P2) supplied by p1_empty_url and
   p2_url, so that its hypotheses are the eight adapter facts and the conditions on d only. *)
From RU Require Import Base.Prelude Base.Utf8 Base.Utf8Facts Base.U32_c13 Model.Punycode Model.Uts46
  Proofs.Idna_Sim Proofs.Idna_Api Proofs.Idna_Known Proofs.Idna_Hyp Proofs.Idna_Redisc
  Proofs.Idna_C10_Deny Proofs.Idna_C10_Inner Proofs.Idna_C10_Walk
  Proofs.Idna_C10b_Long Proofs.Idna_C10b_AsciiInner Proofs.Idna_C10b_Stmt
  Proofs.Idna_WalkFun Proofs.Idna_WalkApi Proofs.Idna_WalkEnc Proofs.Idna_C10c_Drun
  Proofs.Idna_C12c_Virtual Proofs.Idna_C12c_UofA Proofs.Idna_C12c_Stmt4 Proofs.Idna_C12d_Round Proofs.Idna_C12d_Stmt5 Proofs.C09_InstIdna.

(* Sub d' d: d' denies at most what d denies *)
Definition Sub (d' d : N) : Prop := forall c, deny_member d c = false -> deny_member d' c = false.

Lemma sub_lor d' d m : Sub d' d -> Sub (N.lor d' m) (N.lor d m).
Proof.
  intros HS c. rewrite !deny_member_testbit, !N.lor_spec. intros H. apply orb_false_iff in H. destruct H as [H1 H2].
  rewrite <- deny_member_testbit in H1. apply HS in H1. rewrite deny_member_testbit in H1. rewrite H1, H2. reflexivity.
Qed.
Lemma sub_of_land d' d : N.land d' d = d' -> Sub d' d.
Proof.
  intros E c. rewrite !deny_member_testbit. intros H. rewrite <- E, N.land_spec, H, andb_false_r. reflexivity.
Qed.
Lemma sub_empty_url : Sub DENY_EMPTY DENY_URL.
Proof. apply sub_of_land. vm_compute. reflexivity. Qed.

Lemma member_land deny c : deny_member deny c = false -> (N.land deny (N.shiftl 1 c) =? 0) = true.
Proof. unfold deny_member. intros H. apply negb_false_iff in H. exact H. Qed.
Lemma land_member deny c : (N.land deny (N.shiftl 1 c) =? 0) = true -> deny_member deny c = false.
Proof. unfold deny_member. intros H. rewrite H. reflexivity. Qed.

Lemma apply_lower_sub d' d c : Sub d' d -> apply_lower d c <> FFFD -> apply_lower d' c = apply_lower d c.
Proof.
  intros HS. unfold apply_lower. destruct (c <? 128); [|reflexivity].
  destruct (N.land d (N.shiftl 1 c) =? 0) eqn:E; [|intros H; contradiction H; reflexivity].
  intros _. rewrite (member_land d' c (HS c (land_member d c E))). reflexivity.
Qed.
Lemma map_lower_sub d' d l : Sub d' d -> existsb is_fffd (map (apply_lower d) l) = false ->
  map (apply_lower d') l = map (apply_lower d) l.
Proof.
  intros HS. induction l as [|c r IH]; cbn [map existsb]; [reflexivity|].
  intros H. apply orb_false_iff in H. destruct H as [H1 H2]. rewrite (IH H2). f_equal.
  apply apply_lower_sub; [exact HS|]. intros Hq. unfold is_fffd in H1. rewrite Hq, N.eqb_refl in H1. discriminate.
Qed.
Lemma apply_upper_sub d' d b : Sub d' d -> DenyUpper d' -> b < 256 -> apply_upper d b <> FFFD -> apply_upper d' b = apply_upper d b.
Proof.
  intros HS HU Hb. unfold apply_upper.
  destruct (N.land d (N.shiftl 1 b) =? 0) eqn:E.
  - intros _. rewrite (member_land d' b (HS b (land_member d b E))). reflexivity.
  - destruct (in_inclusive_range8 b 65 90) eqn:E2; [|intros H; contradiction H; reflexivity].
    intros _. apply range8_spec in E2; [|exact Hb|lia|lia].
    assert (Hup : is_upper b = true) by (unfold is_upper; lia).
    pose proof (HU b Hup) as Hm. unfold deny_member in Hm. apply negb_true_iff in Hm. rewrite Hm. reflexivity.
Qed.
Lemma map_upper_sub d' d l : Sub d' d -> DenyUpper d' -> Forall (fun b => b < 128) l ->
  existsb is_fffd (map (apply_upper d) l) = false -> map (apply_upper d') l = map (apply_upper d) l.
Proof.
  intros HS HU Ha. induction Ha as [|b r Hb _ IH]; cbn [map existsb]; [reflexivity|].
  intros H. apply orb_false_iff in H. destruct H as [H1 H2]. rewrite (IH H2). f_equal.
  apply apply_upper_sub; [exact HS|exact HU|lia|]. intros Hq. unfold is_fffd in H1. rewrite Hq, N.eqb_refl in H1. discriminate.
Qed.

(* Le a b: if a succeeds, b succeeds with the same result *)
Definition Le {X : Type} (a b : step X) : Prop := forall x, a = SOk x -> b = SOk x.
Lemma Le_refl {X} (a : step X) : Le a a.
Proof. intros x H. exact H. Qed.
Lemma Le_sbind {X Y} (r r' : step X) (k k' : X -> step Y) :
  Le r r' -> (forall x, Le (k x) (k' x)) -> Le (sbind r k) (sbind r' k').
Proof.
  intros H1 H2 y H. apply sbind_ok in H. destruct H as (x & Hr & Hk). rewrite (H1 x Hr). cbn [sbind]. exact (H2 x y Hk).
Qed.

Lemma fffd_join ls : Forall (fun l => existsb is_fffd l = false) ls -> existsb is_fffd (join_dots ls) = false.
Proof.
  induction 1 as [|l r Hl Hr IH]; [reflexivity|]. destruct r as [|l2 r2]; [exact Hl|].
  change (join_dots (l :: l2 :: r2)) with (l ++ DOT :: join_dots (l2 :: r2)).
  rewrite existsb_app. cbn [existsb]. rewrite Hl, IH. reflexivity.
Qed.

Section Deny.
Variable A : adapter.
Variable cfg : bool.
Variable hy : hyphens.
Variables deny' deny : N.
Hypothesis HS : Sub deny' deny.
Hypothesis HU' : DenyUpper deny'.

Let dd' := N.lor deny' DOT_MASK.
Let dd := N.lor deny DOT_MASK.
Let HSd : Sub dd' dd := sub_lor deny' deny DOT_MASK HS.

Lemma scan_lower_sub l he : Le (scan_mark true is_fffd (map (apply_lower dd) l) he) (scan_mark true is_fffd (map (apply_lower dd') l) he).
Proof.
  intros x H. rewrite scan_mark_ff in H. destruct (existsb is_fffd (map (apply_lower dd) l)) eqn:E; [discriminate|].
  rewrite (map_lower_sub dd' dd l HSd E). rewrite scan_mark_ff, E. exact H.
Qed.

Lemma apd_sub dec he : Le (after_punycode_decode A true dd dec he) (after_punycode_decode A true dd' dec he).
Proof.
  unfold after_punycode_decode. apply Le_sbind; [apply scan_lower_sub|]. intros [nz h]. apply Le_refl.
Qed.

Lemma end_sublabel_sub cur he fcm ncj :
  Le (end_sublabel A cfg true hy dd cur he fcm ncj) (end_sublabel A cfg true hy dd' cur he fcm ncj).
Proof.
  unfold end_sublabel. destruct (starts_with cur XN_PREFIX); [|apply Le_refl].
  apply Le_sbind; [apply Le_refl|]. intros [t h1].
  destruct (last_opt (firstn 4 cur ++ t)) as [lst|]; [|apply Le_refl].
  apply Le_sbind; [apply Le_refl|]. intros [[c2 h2] p2].
  apply Le_sbind; [apply Le_refl|]. intros [[c3 h3] p3].
  destruct (negb p3); [|apply Le_refl].
  destruct (decode_with cfg CharInternal (skipn 4 c3)) as [dec| |s]; [|apply Le_refl|apply Le_refl].
  apply Le_sbind; [apply apd_sub|]. intros [c4 h4]. apply Le_refl.
Qed.

Lemma sublabels_sub rest : forall s db cur he ap fcm ncj,
  Le (sublabels A cfg true hy dd s rest db cur he ap fcm ncj) (sublabels A cfg true hy dd' s rest db cur he ap fcm ncj).
Proof.
  induction rest as [|s2 rest IH]; intros s db cur he ap fcm ncj; cbn [sublabels];
    (apply Le_sbind; [apply Le_refl|]); intros [s' h]; (apply Le_sbind; [apply end_sublabel_sub|]); intros [lab h2].
  - apply Le_refl.
  - apply IH.
Qed.

(* an accepted run of the loop over the mapped stream has scanned every piece *)
Lemma sublabels_scanned d0 rest : forall s db cur he ap fcm ncj x,
  sublabels A cfg true hy d0 s rest db cur he ap fcm ncj = SOk x ->
  Forall (fun l => existsb is_fffd l = false) (s :: rest).
Proof.
  induction rest as [|s2 rest IH]; intros s db cur he ap fcm ncj x H; cbn [sublabels] in H;
    apply sbind_ok in H; destruct H as ([s' h] & H1 & H); apply sbind_ok in H; destruct H as ([lab h2] & H2 & H);
    apply scan_true in H1; destruct H1 as (_ & _ & Hf).
  - constructor; [exact Hf|constructor].
  - constructor; [exact Hf|]. exact (IH _ _ _ _ _ _ _ _ H).
Qed.

Lemma scan_upper_sub ascii he : Forall (fun b => b < 128) ascii ->
  Le (scan_mark true is_fffd (map (apply_upper deny) ascii) he) (scan_mark true is_fffd (map (apply_upper deny') ascii) he).
Proof.
  intros Ha x H. rewrite scan_mark_ff in H. destruct (existsb is_fffd (map (apply_upper deny) ascii)) eqn:E; [discriminate|].
  rewrite (map_upper_sub deny' deny ascii HS HU' Ha E). rewrite scan_mark_ff, E. exact H.
Qed.

Lemma complexF_sub db he ap ascii non_ascii : Forall (fun b => b < 128) ascii ->
  Le (complexF A cfg true hy deny db he ap ascii non_ascii) (complexF A cfg true hy deny' db he ap ascii non_ascii).
Proof.
  intros Ha. unfold complexF. apply Le_sbind; [apply scan_upper_sub; exact Ha|]. intros [cur h] x H.
  set (mn := map_normalize A (utf8_lossy non_ascii)) in *.
  destruct (split1 DOT (map (apply_lower deny) mn)) as [s rest] eqn:Esp.
  pose proof (sublabels_scanned _ _ _ _ _ _ _ _ _ _ H) as Hsc.
  assert (Hnf : existsb is_fffd (map (apply_lower deny) mn) = false).
  { rewrite (split1_join _ _ _ Esp). apply fffd_join. exact Hsc. }
  rewrite (map_lower_sub deny' deny mn HS Hnf), Esp. exact (sublabels_sub rest _ _ _ _ _ _ _ x H).
Qed.

Lemma complexT_sub label db he ap ascii : Forall (fun b => b < 128) ascii ->
  Le (complexT true hy deny label db he ap ascii) (complexT true hy deny' label db he ap ascii).
Proof.
  intros Ha. unfold complexT. apply Le_sbind; [apply scan_upper_sub; exact Ha|]. intros [cur h]. apply Le_refl.
Qed.

Lemma label_nonempty_sub label db he ap :
  Le (label_nonempty A cfg true hy deny label db he ap) (label_nonempty A cfg true hy deny' label db he ap).
Proof.
  rewrite !label_nonempty_eq. destruct (split_ascii_fast_path_prefix label) as [ascii non_ascii] eqn:Es.
  pose proof (split_ascii_prefix label ascii non_ascii Es) as Ha.
  destruct non_ascii as [|na nr]; [|apply complexF_sub; exact Ha].
  destruct (has_punycode_prefix ascii); [|apply complexT_sub; exact Ha].
  destruct (negb match last_opt ascii with Some l => l =? HYPHEN | None => false end
            && (len ascii - 4 <=? PUNYCODE_DECODE_MAX_INPUT_LENGTH)).
  - destruct (decode_with cfg U8Internal (skipn 4 ascii)) as [dec| |s]; [|apply Le_refl|apply Le_refl].
    apply Le_sbind; [apply apd_sub|]. intros [c4 h4]. apply Le_refl.
  - intros x H. discriminate H.
Qed.

Lemma label_step_sub label s : Le (label_step A cfg true hy deny label s) (label_step A cfg true hy deny' label s).
Proof.
  unfold label_step. destruct (i_inpre s && is_passthrough_ascii_label label); [apply Le_refl|].
  destruct label as [|b r]; [apply Le_refl|].
  apply Le_sbind; [apply label_nonempty_sub|]. intros [[db he] ap]. apply Le_refl.
Qed.

Lemma labels_loop_sub labels : forall s, Le (labels_loop A cfg true hy deny labels s) (labels_loop A cfg true hy deny' labels s).
Proof.
  induction labels as [|l r IH]; intros s; cbn [labels_loop]; [apply Le_refl|].
  apply Le_sbind; [apply label_step_sub|exact IH].
Qed.

(* the error-free fail-fast run at the larger deny list is the run at the smaller one.  The lemmas above follow
   process_inner function by function; every branch that does not read the deny list is Le_refl.  The deny list is read
   in scan_lower_sub and scan_upper_sub, and in complexF_sub, where apply_lower runs over the whole mapped stream before
   split1 cuts it into pieces: sublabels_scanned gives back that no piece of an accepted run holds U+FFFD *)
Theorem deny_sub d ptu bd db ap :
  process_inner A cfg true hy deny d = IRes ptu bd false db ap ->
  process_inner A cfg true hy deny' d = IRes ptu bd false db ap.
Proof.
  unfold process_inner. destruct (fast_tier d d) as [tail|]; [|intros H; exact H].
  unfold process_innermost.
  set (s0 := {| i_ptu := len d - len tail; i_seen := false; i_inpre := true; i_db := []; i_he := false; i_ap := [] |}).
  destruct (labels_loop A cfg true hy deny (split_on DOT tail) s0) as [s| |p] eqn:E; [|discriminate|discriminate].
  rewrite (labels_loop_sub (split_on DOT tail) s0 s E). intros H. exact H.
Qed.

(* hence ToUnicode (every display policy) gives the same answer at both lists for a name that is accepted at the larger *)
Theorem to_ui_sub d b a p : to_ascii A cfg d deny hy DIgnore = Ok (b, a) ->
  to_user_interface A cfg d deny' hy p = to_user_interface A cfg d deny hy p.
Proof.
  intros H. destruct d as [|x r].
  { unfold to_user_interface, process. rewrite !process_inner_nil. reflexivity. }
  destruct (process_inner A cfg true hy deny (x :: r)) as [ptu bd he db ap|s] eqn:Ei.
  2:{ unfold to_ascii, process in H. rewrite Ei in H. discriminate. }
  destruct (inner_ff_facts A cfg hy deny _ _ _ _ _ _ Ei) as [HX|[-> Hm]].
  { exfalso. inversion HX. subst. unfold to_ascii, process in H. rewrite Ei in H.
    replace (0 =? len (x :: r)) with false in H by (unfold len; cbn [List.length]; lia). cbn [andb] in H. discriminate. }
  pose proof (deny_sub _ _ _ _ _ Ei) as Ei'.
  destruct (inner_ff_facts A cfg hy deny' _ _ _ _ _ _ Ei') as [HX|[_ Hm']]; [inversion HX|].
  unfold to_user_interface, process. rewrite Hm, Hm'. reflexivity.
Qed.
End Deny.

(* (P1) origin.rs and host.rs show the same Unicode form *)
Theorem p1_empty_url A cfg d b a : to_ascii A cfg d DENY_URL HAllow DIgnore = Ok (b, a) ->
  to_unicode A cfg d DENY_EMPTY HAllow = to_unicode A cfg d DENY_URL HAllow.
Proof.
  intros H. unfold to_unicode.
  exact (to_ui_sub A cfg HAllow DENY_EMPTY DENY_URL sub_empty_url (proj1 deny_upper_builtin) d b a always_unicode H).
Qed.

(* (P2): the characters of the Unicode form *)
Lemma utf8_encode_low t b : In b (utf8_encode t) -> b < 128 -> In b t.
Proof.
  unfold utf8_encode. intros H Hb. apply in_flat_map in H. destruct H as (c & Hc & H).
  rewrite (utf8_encode1_low c b H Hb). exact Hc.
Qed.
Lemma okc_join deny ls : okc deny DOT -> Forall (Forall (okc deny)) ls -> Forall (okc deny) (join_dots ls).
Proof. intros Hd H. exact (join_dots_Forall (okc deny) ls Hd H). Qed.

Section Form.
Variable A : adapter.
Variable cfg : bool.
Variable deny : N.
Variable hy : hyphens.
Hypothesis HV : valid_deny deny.
Hypothesis HOK : AdapterOK A.
Hypothesis HUSV : AdapterUSV A.
Hypothesis HNT : NvNoTrunc A.
Hypothesis HNI : NvIdem A.
Hypothesis HNM : AsciiNoMark A.
Hypothesis HMP : MapPrefix A.

Let HU : DenyUpper deny := proj1 (valid_deny_facts deny HV).
Let HL : LdhFree deny := proj2 (valid_deny_facts deny HV).

Lemma pair_out_okc dbl e o : PairOK A cfg deny hy dbl e -> out_label cfg uT dbl e = inl o -> Forall (okc deny) o.
Proof.
  intros HP Ho. destruct HP as [m Han Hn Hacc|m dec dbl Ha Hn Hp Hc Hd Hapd Hchk Hna|dbl Hnv Hg Hchk Hu Hpre];
    cbn [out_label uT] in Ho; inversion Ho; subst o; clear Ho.
  - destruct Han as [Ha _]. unfold lab_acc in Hacc. apply andb_true_iff in Hacc. destruct Hacc as [Hf _].
    apply negb_true_iff in Hf. apply Forall_forall. intros x Hx. apply in_map_iff in Hx. destruct Hx as (b0 & <- & Hb0).
    rewrite Forall_forall in Ha. apply clean_okc. apply (apply_upper_lowclean deny b0 HU HL (Ha b0 Hb0)).
    intros E. unfold cmap in Hf.
    pose proof (existsb_false_in is_fffd _ (apply_upper deny b0) Hf (in_map _ _ _ Hb0)) as Hx. unfold is_fffd in Hx.
    rewrite E, N.eqb_refl in Hx. discriminate.
  - destruct (apd_inv A deny dec dbl false Hapd) as (_ & _ & Hg & _).
    eapply Forall_impl; [|exact Hg]. intros c Hc0. exact (gc_okc deny DOT_MASK c Hc0).
  - eapply Forall_impl; [|exact Hg]. intros c Hc0. exact (gc_okc deny DOT_MASK c Hc0).
Qed.

Lemma outs_okc DBL : forall ap ou, Forall2 (PairOK A cfg deny hy) DBL ap -> outs cfg uT DBL ap = inl ou ->
  Forall (Forall (okc deny)) ou.
Proof.
  induction DBL as [|dbl DBL IH]; intros ap ou HP Ho.
  - inversion HP; subst. cbn [outs] in Ho. inversion Ho. constructor.
  - inversion HP as [|? e ? ap' H1 H2]; subst. cbn [outs] in Ho.
    destruct (out_label cfg uT dbl e) as [o|s] eqn:E1; [|discriminate].
    destruct (outs cfg uT DBL ap') as [os'|s] eqn:E2; [|discriminate]. inversion Ho. subst ou.
    constructor; [exact (pair_out_okc dbl e o H1 E1)|exact (IH _ _ H2 E2)].
Qed.

(* every ASCII character of the Unicode form of an accepted name is outside the deny list *)
Theorem unicode_form_okc d b a : bytes d -> to_ascii A cfg d deny hy DIgnore = Ok (b, a) ->
  Forall (okc deny) (ui_text (to_unicode A cfg d deny hy)).
Proof.
  intros Hb H.
  destruct (first_run A cfg deny hy HU HL HOK HUSV HNT HNI HNM HMP d b a Hb H)
    as [(Ead & Had & HTd)|(pl & DBL & ap & bd & os & ou & bu & Ei & Hpl & HD & HPK & Hbidi & Hbok & Eo & Hos & Ha & Eu & Hou & HTu)].
  - rewrite HTd. cbn [ui_text]. subst a.
    pose proof (c10_ascii_under_notrunc A cfg HNT d deny hy DIgnore b d Hb HV H) as HC.
    eapply Forall_impl; [|exact HC]. intros c (_ & _ & Hm) _. exact Hm.
  - rewrite HTu. cbn [ui_text]. apply okc_join; [exact (clean_okc deny DOT (dot_clean deny HL))|].
    apply Forall_app. split; [|exact (outs_okc DBL ap ou HPK Eu)].
    eapply Forall_impl; [|exact Hpl]. intros l [Hbl Hp].
    eapply Forall_impl; [|exact (passthrough_clean deny l HL Hbl Hp)]. intros c Hc. exact (clean_okc deny c Hc).
Qed.
End Form.

Lemma url_denies_pct_bracket : deny_member DENY_URL 37 = true /\ deny_member DENY_URL 91 = true.
Proof. vm_compute. split; reflexivity. Qed.

(* (P2) for the URL deny list: no '%' byte in the UTF-8 form, no leading '[' *)
Theorem p2_url A cfg : AdapterOK A -> AdapterUSV A -> NvNoTrunc A -> NvIdem A -> AsciiNoMark A -> MapPrefix A ->
  forall d b a, bytes d -> to_ascii A cfg d DENY_URL HAllow DIgnore = Ok (b, a) ->
  let t := ui_text (to_unicode A cfg d DENY_URL HAllow) in
  ~ In 37 (utf8_encode t) /\ Model.Host.starts_with 91 t = false.
Proof.
  intros HOK HUSV HNT HNI HNM HMP d b a Hb H t.
  pose proof (unicode_form_okc A cfg DENY_URL HAllow C09_InstIdna.valid_deny_url HOK HUSV HNT HNI HNM HMP d b a Hb H) as Hf.
  fold t in Hf. rewrite Forall_forall in Hf. destruct url_denies_pct_bracket as [D37 D91]. split.
  - intros Hin. apply utf8_encode_low in Hin; [|lia]. specialize (Hf 37 Hin). unfold okc in Hf. rewrite D37 in Hf.
    assert (X : 37 < 128) by lia. specialize (Hf X). discriminate.
  - destruct t as [|x r] eqn:Et; [reflexivity|]. unfold Model.Host.starts_with.
    destruct (x =? 91) eqn:E; [|reflexivity]. apply N.eqb_eq in E. subst x.
    specialize (Hf 91 (or_introl eq_refl)). unfold okc in Hf. rewrite D91 in Hf.
    assert (X : 91 < 128) by lia. specialize (Hf X). discriminate.
Qed.

From RU Require Import Model.HostT Proofs.C09_Host Proofs.C16_UniHost.

(* Host::parse (host model + IDNA model at the URL deny list) reads the text that origin.rs displays for a domain d -
   idna::domain_to_unicode, the EMPTY deny list, non-ASCII forms included - back as d: for every ToASCII fixed point d
   that is not empty and does not end in a number, outside Known_C12 / Known_C10_long, relative to the eight sampled
   adapter facts only *)
Theorem uni_host_rt_full A cfg :
  AdapterOK A -> AdapterUSV A -> NvNoTrunc A -> NvIdem A -> AsciiNoMark A -> MapPrefix A -> NvMapFix A -> NvNoGrow A ->
  forall d b, Forall (fun c => c < 128) d -> to_ascii A cfg d DENY_URL HAllow DIgnore = U32_c13.Ok (b, d) ->
  Known_C12 A cfg d DENY_URL HAllow = false -> Known_C10_long d = false ->
  d <> [] -> Model.Host.ends_in_a_number d = false ->
  Model.Host.host_parse (idna_of A cfg) (ui_text (domain_to_unicode A cfg d)) = HostT.Ok (HDomain d)
  /\ usv_list (ui_text (domain_to_unicode A cfg d)).
Proof.
  intros HOK HUSV HNT HNI HNM HMP HMF HNG d b Ha H HK Hlong Hne Hnum.
  assert (Hb : bytes d) by (unfold bytes; eapply Forall_impl; [|exact Ha]; intros c Hc; unfold is_byte; cbv beta in Hc; lia).
  pose proof (p1_empty_url A cfg d b d H) as HP1.
  destruct (p2_url A cfg HOK HUSV HNT HNI HNM HMP d b d Hb H) as [Hpct Hbr].
  assert (Et : ui_text (domain_to_unicode A cfg d) = ui_text (to_unicode A cfg d DENY_URL HAllow)).
  { unfold domain_to_unicode. rewrite (C09_Host.utf8_encode_ascii d Ha), HP1. reflexivity. }
  split.
  - apply (uni_host_rt_origin A cfg HOK HUSV HNT HNI HNM HMP HMF HNG d b Ha H HK Hlong Hne Hnum).
    + rewrite HP1. reflexivity.
    + rewrite Et. exact Hpct.
    + rewrite Et. exact Hbr.
  - rewrite Et. exact (c12_unicode_usv A cfg HOK HUSV HNT HNI HNM HMP HMF HNG d DENY_URL HAllow b d Hb valid_deny_url HK H Hlong).
Qed.
