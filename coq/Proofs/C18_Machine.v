(* Proofs/C18_Machine.v - the decoder as a pure machine plus a sink protocol.
   For EVERY sink closure, Decoder::feed / finish behave as: compute a list of chunks from the input
   alone, attempt the writes in order, stop at the first one that fails.  Chunking independence
   and the sink-failure law follow. *)
From RU Require Import Base.Prelude Gen.Tables Model.Base64.

(* the sink-independent part of the decoder state and of one loop iteration *)
Record pst := mk_pst { p_buf : N; p_len : N; p_pad : N }.

Inductive pres :=
| PSkip (p : pst)                      (* no write *)
| PEmit (p : pst) (chunk : list N)     (* p = state at the moment of the write (len not yet reset) *)
| PErr (e : b64_details).

Definition p_reset (p : pst) : pst := mk_pst (p_buf p) 0 (p_pad p).

Definition pstep (p : pst) (byte : N) : pres :=
  let value := b64_value byte in
  if (value <? 0)%Z then
    if memb byte T_B64_WS then PSkip p
    else if byte =? T_B64_PAD then PSkip (mk_pst (p_buf p) (p_len p) (u8_saturating_add (p_pad p) 1))
    else PErr (UnexpectedSymbol byte)
  else if 0 <? p_pad p then PErr AlphabetSymbolAfterPadding
  else
    let buf := N.lor (u32_shl (p_buf p) 6) (Z.to_N value) in
    if p_len p <? 18 then PSkip (mk_pst buf (p_len p + 6) (p_pad p))
    else PEmit (mk_pst buf (p_len p) (p_pad p))
               [as_u8 (N.shiftr buf 16); as_u8 (N.shiftr buf 8); as_u8 buf].

Definition pst_of {W} (d : decoder W) : pst := mk_pst (d_buf d) (d_len d) (d_pad d).
Definition with_pst {W} (w : W) (p : pst) : decoder W := mk_decoder w (p_buf p) (p_len p) (p_pad p).

Lemma with_pst_of {W} (d : decoder W) : with_pst (d_sink d) (pst_of d) = d.
Proof. destruct d; reflexivity. Qed.
Lemma pst_of_with {W} (w : W) p : pst_of (with_pst w p) = p.
Proof. destruct p; reflexivity. Qed.
Lemma sink_with {W} (w : W) p : d_sink (with_pst w p) = w.
Proof. reflexivity. Qed.

(* pure trace of feed: the chunks written if every write succeeds, then the final state or the error *)
Fixpoint ptrace (p : pst) (input : list N) : list (list N) * (pst + b64_details) :=
  match input with
  | [] => ([], inl p)
  | b :: r =>
      match pstep p b with
      | PSkip p' => ptrace p' r
      | PErr e => ([], inr e)
      | PEmit p' c => let (cs, fin) := ptrace (p_reset p') r in (c :: cs, fin)
      end
  end.

(* pure finish: the chunk written (if any) and the verdict *)
Definition pfinish (p : pst) : list (list N) * option b64_details :=
  let len := p_len p in
  let pad := p_pad p in
  if (len =? 0) && (pad =? 0) then ([], None)
  else if (len =? 12) && ((pad =? 2) || (pad =? 0)) then ([[as_u8 (N.shiftr (p_buf p) 4)]], None)
  else if (len =? 18) && ((pad =? 1) || (pad =? 0)) then
    ([[as_u8 (N.shiftr (p_buf p) 10); as_u8 (N.shiftr (p_buf p) 2)]], None)
  else if len =? 6 then ([], Some LoneAlphabetSymbol)
  else ([], Some PaddingErr).

Definition p_new : pst := mk_pst 0 0 0.

(* pure run: all chunks of feed-then-finish and the verdict *)
Definition prun (input : list N) : list (list N) * option b64_details :=
  let (c1, fin) := ptrace p_new input in
  match fin with
  | inl p => let (c2, v) := pfinish p in (c1 ++ c2, v)
  | inr e => (c1, Some e)
  end.

Lemma ptrace_app p x y :
  ptrace p (x ++ y) =
  let (c1, fin) := ptrace p x in
  match fin with
  | inl p' => let (c2, fin2) := ptrace p' y in (c1 ++ c2, fin2)
  | inr e => (c1, inr e)
  end.
Proof.
  revert p. induction x as [|b r IH]; intros p.
  - cbn [app ptrace]. destruct (ptrace p y) as [c2 fin2]. reflexivity.
  - cbn [app ptrace]. destruct (pstep p b) as [p'|p' c|e].
    + apply IH.
    + rewrite IH. destruct (ptrace (p_reset p') r) as [c1 [p''|e]].
      * destruct (ptrace p'' y) as [c2 fin2]. reflexivity.
      * reflexivity.
    + reflexivity.
Qed.

Section AnySink.
  Context {W E : Type}.
  Variable write : W -> list N -> W * option E.

  (* attempt the writes in order, stop at the first failure *)
  Fixpoint attempt (w : W) (calls : list (list N)) : W * option E :=
    match calls with
    | [] => (w, None)
    | c :: r => match write w c with
                | (w', None) => attempt w' r
                | (w', Some e) => (w', Some e)
                end
    end.

  Lemma attempt_app w a b :
    attempt w (a ++ b) = match attempt w a with
                         | (w', None) => attempt w' b
                         | (w', Some e) => (w', Some e)
                         end.
  Proof.
    revert w. induction a as [|c r IH]; intros w; cbn [app attempt]; [reflexivity|].
    destruct (write w c) as [w' [e|]]; [reflexivity | apply IH].
  Qed.

  Lemma feed_byte_pstep d b :
    feed_byte write d b =
    match pstep (pst_of d) b with
    | PSkip p => (with_pst (d_sink d) p, None)
    | PErr e => (d, Some (InvalidBase64 e))
    | PEmit p c =>
        match write (d_sink d) c with
        | (w', Some e) => (with_pst w' p, Some (WriteError e))
        | (w', None) => (with_pst w' (p_reset p), None)
        end
    end.
  Proof.
    destruct d as [w buf len pad]. unfold feed_byte, pstep, pst_of, with_pst, p_reset.
    cbn [d_sink d_buf d_len d_pad p_buf p_len p_pad].
    destruct (b64_value b <? 0)%Z.
    - destruct (memb b T_B64_WS); [reflexivity|]. destruct (b =? T_B64_PAD); reflexivity.
    - destruct (0 <? pad); [reflexivity|]. destruct (len <? 18); reflexivity.
  Qed.

  (* feed against any sink = attempt the pure trace *)
  Definition feed_law (w : W) (p : pst) (input : list N) (res : decoder W * option (decode_error E)) : Prop :=
    let (calls, fin) := ptrace p input in
    match attempt w calls, fin with
    | (w', None), inl p' => res = (with_pst w' p', None)
    | (w', None), inr e => d_sink (fst res) = w' /\ snd res = Some (InvalidBase64 e)
    | (w', Some e), _ => d_sink (fst res) = w' /\ snd res = Some (WriteError e)
    end.

  Lemma feed_ptrace w p input : feed_law w p input (feed write (with_pst w p) input).
  Proof.
    unfold feed_law. revert w p. induction input as [|b r IH]; intros w p.
    - cbn [ptrace attempt feed]. reflexivity.
    - cbn [ptrace feed]. rewrite feed_byte_pstep, pst_of_with, sink_with.
      destruct (pstep p b) as [p'|p' c|e].
      + apply IH.
      + destruct (ptrace (p_reset p') r) as [cs fin] eqn:Etr. cbn [attempt].
        destruct (write w c) as [w' [e|]].
        * split; reflexivity.
        * specialize (IH w' (p_reset p')). rewrite Etr in IH. exact IH.
      + cbn [attempt]. split; reflexivity.
  Qed.

  Lemma finish_pfinish w p :
    finish write (with_pst w p) =
    let (calls, v) := pfinish p in
    match attempt w calls with
    | (w', None) => (w', option_map InvalidBase64 v)
    | (w', Some e) => (w', Some (WriteError e))
    end.
  Proof.
    destruct p as [buf len pad]. unfold finish, pfinish, with_pst.
    cbn [d_sink d_buf d_len d_pad p_buf p_len p_pad].
    destruct ((len =? 0) && (pad =? 0)); [reflexivity|].
    destruct ((len =? 12) && ((pad =? 2) || (pad =? 0))).
    { cbn [attempt]. destruct (write w _) as [w' [e|]]; reflexivity. }
    destruct ((len =? 18) && ((pad =? 1) || (pad =? 0))).
    { cbn [attempt]. destruct (write w _) as [w' [e|]]; reflexivity. }
    destruct (len =? 6); reflexivity.
  Qed.

  (* the verdict of a run against a sink, from the pure trace *)
  Definition exec (w : W) (t : list (list N) * option b64_details) : W * option (decode_error E) :=
    match attempt w (fst t) with
    | (w', None) => (w', option_map InvalidBase64 (snd t))
    | (w', Some e) => (w', Some (WriteError e))
    end.

  Lemma run_unfold w input :
    run write w input =
    match feed write (decoder_new w) input with
    | (d, None) => finish write d
    | (d, Some e) => (d_sink d, Some e)
    end.
  Proof.
    unfold run, run_chunks. cbn [feed_chunks].
    destruct (feed write (decoder_new w) input) as [d [e|]]; reflexivity.
  Qed.

  Theorem run_exec w input : run write w input = exec w (prun input).
  Proof.
    rewrite run_unfold. change (decoder_new w) with (with_pst w p_new).
    pose proof (feed_ptrace w p_new input) as HF. unfold feed_law in HF.
    unfold exec, prun.
    destruct (ptrace p_new input) as [c1 fin].
    destruct (feed write (with_pst w p_new) input) as [d r]. cbn [fst snd] in HF.
    destruct fin as [p'|e].
    - destruct (pfinish p') as [c2 v] eqn:Efin. cbn [fst snd]. rewrite attempt_app.
      destruct (attempt w c1) as [w' [e|]].
      + destruct HF as [H1 H2]. subst r. rewrite H1. reflexivity.
      + inversion HF; subst d r. rewrite finish_pfinish, Efin. reflexivity.
    - cbn [fst snd]. destruct (attempt w c1) as [w' [e'|]]; destruct HF as [H1 H2]; subst r; rewrite H1; reflexivity.
  Qed.

  Lemma feed_app d x y :
    feed write d (x ++ y) = match feed write d x with
                            | (d', None) => feed write d' y
                            | (d', Some e) => (d', Some e)
                            end.
  Proof.
    revert d. induction x as [|b r IH]; intros d; cbn [app feed]; [reflexivity|].
    destruct (feed_byte write d b) as [d' [e|]]; [reflexivity | apply IH].
  Qed.

  Lemma feed_chunks_concat d cs : feed_chunks write d cs = feed write d (concat cs).
  Proof.
    revert d. induction cs as [|c r IH]; intros d; cbn [feed_chunks concat]; [reflexivity|].
    rewrite feed_app. destruct (feed write d c) as [d' [e|]]; [reflexivity | apply IH].
  Qed.

  Theorem run_chunks_concat w cs : run_chunks write w cs = run write w (concat cs).
  Proof.
    unfold run, run_chunks. rewrite !feed_chunks_concat. cbn [concat]. rewrite app_nil_r. reflexivity.
  Qed.

End AnySink.

(* the closure `|bytes| decoder.feed(bytes)` used as a sink: attempting writes on it is feed_chunks *)
Lemma attempt_feed_is_feed_chunks {W E} (write : W -> list N -> W * option E) d cs :
  attempt (feed write) d cs = feed_chunks write d cs.
Proof.
  revert d. induction cs as [|c r IH]; intros d; cbn [attempt feed_chunks]; [reflexivity|].
  destruct (feed write d c) as [d' [e|]]; [reflexivity | apply IH].
Qed.

Lemma attempt_kwrite_never n o calls :
  attempt kwrite (mk_ksink None n o) calls = (mk_ksink None (n + length calls) (o ++ calls), None).
Proof.
  revert n o. induction calls as [|c r IH]; intros n o.
  - cbn [attempt length]. rewrite Nat.add_0_r, app_nil_r. reflexivity.
  - cbn [attempt]. unfold kwrite at 1. cbn [ks_fail_at ks_calls ks_out option_nat_eqb].
    rewrite IH. cbn [length]. rewrite <- app_assoc. cbn [app]. f_equal. f_equal. lia.
Qed.

Lemma attempt_kwrite_fail k n o calls :
  (n < k)%nat ->
  attempt kwrite (mk_ksink (Some k) n o) calls =
  if (k <=? n + length calls)%nat
  then (mk_ksink (Some k) k (o ++ firstn (k - n - 1) calls), Some tt)
  else (mk_ksink (Some k) (n + length calls) (o ++ calls), None).
Proof.
  revert n o. induction calls as [|c r IH]; intros n o Hn.
  - cbn [attempt length]. rewrite Nat.add_0_r.
    destruct (k <=? n)%nat eqn:Hk; [apply Nat.leb_le in Hk; lia|]. rewrite app_nil_r. reflexivity.
  - cbn [attempt]. unfold kwrite at 1. cbn [ks_fail_at ks_calls ks_out option_nat_eqb length].
    destruct (Nat.eqb k (S n)) eqn:Hk.
    + apply Nat.eqb_eq in Hk. subst k.
      destruct (S n <=? n + S (length r))%nat eqn:Hle; [|apply Nat.leb_gt in Hle; lia].
      replace (S n - n - 1)%nat with 0%nat by lia. cbn [firstn]. rewrite app_nil_r. reflexivity.
    + apply Nat.eqb_neq in Hk. rewrite IH by lia.
      replace (S n + length r)%nat with (n + S (length r))%nat by lia.
      destruct (k <=? n + S (length r))%nat.
      * replace (k - n - 1)%nat with (S (k - S n - 1)) by lia. cbn [firstn].
        rewrite <- app_assoc. reflexivity.
      * rewrite <- app_assoc. reflexivity.
Qed.

(* what a function that "attempts a fixed list of calls then returns a verdict" does against the
   k-failing sink, compared with the never-failing sink: the sink law of the property text *)
Definition sink_law {V : Type} (werr : V) (free : ksink * V) (failing : ksink * V) (k : nat) : Prop :=
  ks_calls (fst free) = length (ks_out (fst free)) /\
  if (k <=? ks_calls (fst free))%nat
  then ks_out (fst failing) = firstn (k - 1) (ks_out (fst free)) /\ snd failing = werr
       /\ ks_calls (fst failing) = k
  else ks_out (fst failing) = ks_out (fst free) /\ snd failing = snd free
       /\ ks_calls (fst failing) = ks_calls (fst free).

Lemma attempt_sink_law {V} (werr : V) (verdict : V) calls k :
  (1 <= k)%nat ->
  sink_law werr
    (let (s, r) := attempt kwrite (ksink_new None) calls in (s, match r with None => verdict | Some _ => werr end))
    (let (s, r) := attempt kwrite (ksink_new (Some k)) calls in (s, match r with None => verdict | Some _ => werr end))
    k.
Proof.
  intros Hk. unfold ksink_new. rewrite attempt_kwrite_never, attempt_kwrite_fail by lia.
  unfold sink_law. cbn [fst snd ks_calls ks_out app Nat.add].
  split; [reflexivity|].
  destruct (k <=? length calls)%nat eqn:Hle; cbn [fst snd ks_calls ks_out app].
  - replace (k - 0 - 1)%nat with (k - 1)%nat by lia. repeat split; reflexivity.
  - repeat split; reflexivity.
Qed.

Theorem run_sink_law input k :
  (1 <= k)%nat ->
  sink_law (Some (WriteError tt))
    (run kwrite (ksink_new None) input) (run kwrite (ksink_new (Some k)) input) k.
Proof.
  intros Hk. rewrite !run_exec. unfold exec.
  pose proof (attempt_sink_law (Some (WriteError tt)) (option_map (@InvalidBase64 unit) (snd (prun input)))
                (fst (prun input)) k Hk) as H.
  destruct (attempt kwrite (ksink_new None) (fst (prun input))) as [s1 [[]|]];
  destruct (attempt kwrite (ksink_new (Some k)) (fst (prun input))) as [s2 [[]|]]; exact H.
Qed.

Lemma attempt_vec v calls : attempt vec_write v calls = (v ++ concat calls, None).
Proof.
  revert v. induction calls as [|c r IH]; intros v; cbn [attempt concat].
  - rewrite app_nil_r. reflexivity.
  - unfold vec_write at 1. rewrite IH, app_assoc. reflexivity.
Qed.

Theorem decode_to_vec_prun input :
  decode_to_vec input = match snd (prun input) with
                        | None => inl (concat (fst (prun input)))
                        | Some e => inr e
                        end.
Proof.
  pose proof (run_exec vec_write [] input) as HR. rewrite run_unfold in HR.
  unfold decode_to_vec. unfold exec in HR. rewrite attempt_vec in HR. cbn [app] in HR.
  destruct (feed vec_write (decoder_new []) input) as [d [[e|[]]|]].
  - destruct (snd (prun input)); cbn [option_map] in HR; inversion HR; reflexivity.
  - destruct (finish vec_write d) as [v [[e|[]]|]];
      destruct (snd (prun input)); cbn [option_map] in HR; inversion HR; reflexivity.
Qed.
