(* Proofs/C15_Parse.v - form_urlencoded::parse: totality, closed form, '&' laws. *)
From RU Require Import Base.Prelude Base.Utf8 Base.Utf8Facts Gen.Tables
  Model.PercentEncoding Model.FormUrlencoded Proofs.C14_Views.

Lemma position_lt p l i : position p l = Some i -> (i < length l)%nat.
Proof.
  revert i. induction l as [|b r IH]; intros i H; cbn [position] in H; [discriminate|].
  destruct (p b).
  - inversion H; subst. cbn [length]. lia.
  - destruct (position p r) as [j|]; [|discriminate]. inversion H; subst.
    specialize (IH j eq_refl). cbn [length]. lia.
Qed.

Lemma position_none p l : position p l = None <-> Forall (fun b => p b = false) l.
Proof.
  induction l as [|b r IH]; cbn [position].
  - split; [constructor | reflexivity].
  - destruct (p b) eqn:E.
    + split; [discriminate|]. intros H. inversion H; congruence.
    + destruct (position p r) as [j|].
      * split; [discriminate|]. intros H. inversion H as [|? ? _ H2]; subst. apply IH in H2. discriminate.
      * split; [|reflexivity]. intros _. constructor; [exact E | apply IH; reflexivity].
Qed.

Lemma plus_to_space_eq b : plus_to_space b = if b =? 43 then 32 else b.
Proof. reflexivity. Qed.

Lemma p2s_plus b : (b =? T_FORM_PLUS) = true -> plus_to_space b = T_FORM_PLUS_REPL.
Proof. intros H. unfold plus_to_space. rewrite H. reflexivity. Qed.
Lemma p2s_other b : (b =? T_FORM_PLUS) = false -> plus_to_space b = b.
Proof. intros H. unfold plus_to_space. rewrite H. reflexivity. Qed.

Theorem replace_plus_value x : snd (replace_plus x) = map plus_to_space x.
Proof.
  induction x as [|b r IH]; [reflexivity|].
  unfold replace_plus in *. cbn [position map].
  destruct (b =? T_FORM_PLUS) eqn:E.
  - cbn [firstn skipn app snd]. rewrite (p2s_plus b E). reflexivity.
  - rewrite (p2s_other b E).
    destruct (position (fun b0 => b0 =? T_FORM_PLUS) r) as [i|] eqn:Ep.
    + cbn [firstn skipn snd app] in *. f_equal. exact IH.
    + cbn [snd] in *. f_equal. exact IH.
Qed.

(* replace_plus borrows exactly when there is no '+' *)
Theorem replace_plus_borrow_iff x :
  fst (replace_plus x) = BorrowedInput <-> Forall (fun b => b <> 43) x.
Proof.
  unfold replace_plus.
  destruct (position (fun b => b =? T_FORM_PLUS) x) as [i|] eqn:Ep; cbn [fst].
  - split; [discriminate|]. intros H.
    assert (Hn : position (fun b => b =? T_FORM_PLUS) x = None).
    { apply position_none. eapply Forall_impl; [|exact H]. cbv beta. intros a Ha.
      change T_FORM_PLUS with 43. lia. }
    congruence.
  - split; [|reflexivity]. intros _. apply position_none in Ep.
    eapply Forall_impl; [|exact Ep]. cbv beta. intros a Ha. change T_FORM_PLUS with 43 in Ha. lia.
Qed.

(* the decoded text: '+' -> space, percent-decode, lossy UTF-8 *)
Definition fdec (x : list N) : list N := utf8_lossy (decode (map plus_to_space x)).

Theorem fu_decode_value x : snd (fu_decode x) = fdec x.
Proof.
  unfold fu_decode, fdec. rewrite <- replace_plus_value.
  set (rp := replace_plus x).
  assert (H : snd (match pd_cow (snd rp) with
                   | (Owned, vec) => (Owned, vec)
                   | (BorrowedInput, _) | (BorrowedStatic, _) => rp
                   end) = decode (snd rp)).
  { pose proof (pd_cow_value (snd rp)) as Hv. unfold pd_cow in *.
    destruct (if_any (snd rp)) as [v|]; cbn [snd] in *; [exact Hv | exact Hv]. }
  unfold decode_utf8_lossy.
  destruct (fst (match pd_cow (snd rp) with
                 | (Owned, vec) => (Owned, vec)
                 | (BorrowedInput, _) | (BorrowedStatic, _) => rp
                 end)); cbn [snd]; rewrite H; reflexivity.
Qed.

Lemma fdec_nil : fdec [] = [].
Proof. reflexivity. Qed.

(* all pieces between occurrences of d (never empty as a list: the empty input has one empty piece) *)
Fixpoint split_all (d : N) (bs : list N) : list (list N) :=
  match bs with
  | [] => [[]]
  | b :: r => if b =? d then [] :: split_all d r
              else match split_all d r with
                   | p :: ps => (b :: p) :: ps
                   | [] => [[b]]
                   end
  end.

Lemma split_all_nonempty d bs : split_all d bs <> [].
Proof.
  induction bs as [|b r IH]; cbn [split_all]; [discriminate|].
  destruct (b =? d); [discriminate|]. destruct (split_all d r); discriminate.
Qed.

Lemma split_all_app d x y : split_all d (x ++ d :: y) = split_all d x ++ split_all d y.
Proof.
  induction x as [|b r IH]; cbn [app split_all].
  - rewrite N.eqb_refl. reflexivity.
  - destruct (b =? d); [rewrite IH; reflexivity|].
    rewrite IH. pose proof (split_all_nonempty d r) as Hn.
    destruct (split_all d r) as [|p ps]; [congruence|]. reflexivity.
Qed.

Lemma split_all_no_delim d x : Forall (fun b => b <> d) x -> split_all d x = [x].
Proof.
  induction x as [|b r IH]; intros H; [reflexivity|].
  inversion H as [|? ? Hb Hr]; subst. cbn [split_all].
  replace (b =? d) with false by lia. rewrite IH by exact Hr. reflexivity.
Qed.

Lemma splitn2_split_all d bs h t : splitn2 d bs = (h, t) ->
  split_all d bs = h :: match t with Some r => split_all d r | None => [] end.
Proof.
  revert h t. induction bs as [|b r IH]; intros h t H; cbn [splitn2] in H.
  - inversion H; subst. reflexivity.
  - cbn [split_all]. destruct (b =? d).
    + inversion H; subst. reflexivity.
    + destruct (splitn2 d r) as [h' t'] eqn:E. inversion H; subst.
      rewrite (IH h' t eq_refl). reflexivity.
Qed.

Lemma splitn2_no_delim d x : Forall (fun b => b <> d) x -> splitn2 d x = (x, None).
Proof.
  induction x as [|b r IH]; intros H; [reflexivity|].
  inversion H as [|? ? Hb Hr]; subst. cbn [splitn2].
  replace (b =? d) with false by lia. rewrite IH by exact Hr. reflexivity.
Qed.

Lemma splitn2_app d x y : Forall (fun b => b <> d) x -> splitn2 d (x ++ d :: y) = (x, Some y).
Proof.
  induction x as [|b r IH]; intros H; cbn [app splitn2].
  - rewrite N.eqb_refl. reflexivity.
  - inversion H as [|? ? Hb Hr]; subst. replace (b =? d) with false by lia.
    rewrite IH by exact Hr. reflexivity.
Qed.

Lemma splitn2_length d bs h t : splitn2 d bs = (h, t) ->
  (length h <= length bs)%nat /\ match t with Some r => (length r < length bs)%nat | None => True end.
Proof.
  revert h t. induction bs as [|b r IH]; intros h t H; cbn [splitn2] in H.
  - inversion H; subst. cbn. split; [lia|exact I].
  - destruct (b =? d).
    + inversion H; subst. cbn [length]. split; lia.
    + destruct (splitn2 d r) as [h' t'] eqn:E. inversion H; subst.
      destruct (IH h' t eq_refl) as [H1 H2]. cbn [length]. split; [lia|].
      destruct t; [lia|exact I].
Qed.

Definition pair_of (piece : list N) : list N * list N :=
  let (n, v) := splitn2 61 piece in (fdec n, fdec (unwrap_or_empty v)).

Definition emit (piece : list N) : list (list N * list N) :=
  match piece with [] => [] | _ => [pair_of piece] end.

(* split at every '&', drop the empty pieces, split each piece at its first '=' and decode *)
Definition parse_spec (bs : list N) : list (list N * list N) := flat_map emit (split_all 38 bs).

Lemma parse_spec_nil : parse_spec [] = [].
Proof. reflexivity. Qed.

Theorem parse_spec_app_amp x y : parse_spec (x ++ 38 :: y) = parse_spec x ++ parse_spec y.
Proof. unfold parse_spec. rewrite split_all_app, flat_map_app. reflexivity. Qed.

Lemma parse_spec_amp_head x : parse_spec (38 :: x) = parse_spec x.
Proof. exact (parse_spec_app_amp [] x). Qed.

Lemma parse_spec_amp_tail x : parse_spec (x ++ [38]) = parse_spec x.
Proof. rewrite (parse_spec_app_amp x []), parse_spec_nil, app_nil_r. reflexivity. Qed.

Lemma parse_spec_double_amp x y : parse_spec (x ++ 38 :: 38 :: y) = parse_spec (x ++ 38 :: y).
Proof. rewrite !parse_spec_app_amp, parse_spec_amp_head. reflexivity. Qed.

Lemma parse_spec_piece x : x <> [] -> Forall (fun b => b <> 38) x -> parse_spec x = [pair_of x].
Proof.
  intros Hne H. unfold parse_spec. rewrite split_all_no_delim by exact H. cbn [flat_map].
  destruct x; [congruence|]. reflexivity.
Qed.

(* Parse::next by structural recursion: skip the empty pieces, split the first non-empty one at its first '=' *)
Fixpoint parse_next_spec (input : list N) : pnext :=
  match input with
  | [] => PNone
  | b :: r =>
      if b =? 38 then parse_next_spec r
      else let (sequence, second) := splitn2 38 input in
           let (name, value) := splitn2 61 sequence in
           PSome (fu_decode name) (fu_decode (unwrap_or_empty value)) (unwrap_or_empty second)
  end.

Lemma parse_next_f_spec n : forall input, (length input < n)%nat ->
  parse_next_f n input = parse_next_spec input.
Proof.
  induction n as [|n IH]; intros input Hlen; [lia|].
  destruct input as [|b r]; [reflexivity|].
  cbn [parse_next_f is_empty parse_next_spec]. change T_FORM_PAIR_SEP with 38. change T_FORM_KV_SEP with 61.
  cbn [splitn2]. destruct (b =? 38) eqn:E.
  - cbn [is_empty unwrap_or_empty]. apply IH. cbn [length] in Hlen. lia.
  - destruct (splitn2 38 r) as [h t]. cbn [is_empty]. reflexivity.
Qed.

Theorem parse_next_is_spec input : parse_next input = parse_next_spec input.
Proof. unfold parse_next. apply parse_next_f_spec. lia. Qed.

(* the loop fuel is never exhausted *)
Theorem parse_next_no_fuel input : parse_next input <> PFuel.
Proof.
  rewrite parse_next_is_spec. induction input as [|b r IH]; cbn [parse_next_spec]; [discriminate|].
  destruct (b =? 38); [exact IH|].
  destruct (splitn2 38 (b :: r)) as [s t]. destruct (splitn2 61 s). discriminate.
Qed.

(* what one successful step yields, in terms of the closed form *)
Lemma parse_next_spec_some input n v rest : parse_next_spec input = PSome n v rest ->
  (length rest < length input)%nat /\ parse_spec input = (snd n, snd v) :: parse_spec rest.
Proof.
  induction input as [|b r IH]; cbn [parse_next_spec]; [discriminate|].
  destruct (b =? 38) eqn:E.
  - intros H. destruct (IH H) as [H1 H2]. cbn [length]. split; [lia|].
    assert (b = 38) as -> by lia. rewrite parse_spec_amp_head. exact H2.
  - destruct (splitn2 38 (b :: r)) as [s t] eqn:Es.
    destruct (splitn2 61 s) as [nm vl] eqn:Ek. intros H. inversion H; subst. clear H.
    pose proof (splitn2_length _ _ _ _ Es) as [_ Hl].
    split.
    + destruct t as [r'|]; cbn [unwrap_or_empty]; [exact Hl | cbn [length]; lia].
    + unfold parse_spec. rewrite (splitn2_split_all _ _ _ _ Es). cbn [flat_map].
      assert (Hs : s <> []).
      { cbn [splitn2] in Es. rewrite E in Es. destruct (splitn2 38 r). inversion Es. discriminate. }
      assert (He : emit s = [(snd (fu_decode nm), snd (fu_decode (unwrap_or_empty vl)))]).
      { destruct s as [|s0 s']; [congruence|]. unfold emit, pair_of. rewrite Ek, !fu_decode_value. reflexivity. }
      rewrite He. cbn [app]. f_equal.
      destruct t as [r'|]; cbn [unwrap_or_empty]; reflexivity.
Qed.

Lemma parse_next_spec_none input : parse_next_spec input = PNone -> parse_spec input = [].
Proof.
  induction input as [|b r IH]; cbn [parse_next_spec]; [reflexivity|].
  destruct (b =? 38) eqn:E.
  - intros H. assert (b = 38) as -> by lia. rewrite parse_spec_amp_head. exact (IH H).
  - destruct (splitn2 38 (b :: r)) as [s t]. destruct (splitn2 61 s). discriminate.
Qed.

Lemma parse_collect_f_spec n : forall input, (length input < n)%nat ->
  parse_collect_f n input = Some (parse_spec input).
Proof.
  induction n as [|n IH]; intros input Hlen; [lia|].
  cbn [parse_collect_f]. unfold parse_into_owned_next. rewrite parse_next_is_spec.
  destruct (parse_next_spec input) as [|nm vl rest|] eqn:E.
  - rewrite (parse_next_spec_none _ E). reflexivity.
  - destruct (parse_next_spec_some _ _ _ _ E) as [H1 H2].
    rewrite IH by lia. rewrite H2. reflexivity.
  - exfalso. apply (parse_next_no_fuel input). rewrite parse_next_is_spec. exact E.
Qed.

(* parse is total (fuel never runs out; there is no Panic constructor in its type at all: the two
   `.unwrap()`s of Parse::next are on the first item of splitn, which the model has by construction) and
   equals the closed form *)
Theorem parse_is_spec input : parse input = Some (parse_spec input).
Proof. unfold parse. apply parse_collect_f_spec. lia. Qed.

(* the Cow-keeping collection agrees with the owned one *)
Lemma parse_collect_owned n : forall input,
  parse_collect_f n input = option_map (map (fun p => (snd (fst p), snd (snd p)))) (parse_collect_cow_f n input).
Proof.
  induction n as [|n IH]; intros input; [reflexivity|].
  cbn [parse_collect_f parse_collect_cow_f]. unfold parse_into_owned_next.
  destruct (parse_next input) as [|nm vl rest|]; try reflexivity.
  rewrite IH. destruct (parse_collect_cow_f n rest); reflexivity.
Qed.

Theorem parse_cow_owned input :
  exists l, parse_cow input = Some l /\ map (fun p => (snd (fst p), snd (snd p))) l = parse_spec input.
Proof.
  pose proof (parse_is_spec input) as H. unfold parse, parse_cow in *. rewrite parse_collect_owned in H.
  destruct (parse_collect_cow_f _ input) as [l|]; [|discriminate].
  exists l. split; [reflexivity|]. inversion H. reflexivity.
Qed.

Theorem parse_app_amp x y :
  parse (x ++ 38 :: y) = Some (parse_spec x ++ parse_spec y).
Proof. rewrite parse_is_spec, parse_spec_app_amp. reflexivity. Qed.

Theorem parse_double_amp x y : parse (x ++ 38 :: 38 :: y) = parse (x ++ 38 :: y).
Proof. rewrite !parse_is_spec, parse_spec_double_amp. reflexivity. Qed.

Theorem parse_amp_head x : parse (38 :: x) = parse x.
Proof. rewrite !parse_is_spec, parse_spec_amp_head. reflexivity. Qed.

Theorem parse_amp_tail x : parse (x ++ [38]) = parse x.
Proof. rewrite !parse_is_spec, parse_spec_amp_tail. reflexivity. Qed.

(* the scanner yields scalar values only, so lossy decoding does (utf8_lossy_usv), and so every name and value
   parse returns is a list of Unicode scalar values (parse_spec_usv) *)
Lemma utf8_scan_usv bs : Forall (fun it => match it with UCp c _ => is_usv c | UBad _ _ => True end) (utf8_scan bs).
Proof.
  assert (H : forall n bs, (length bs <= n)%nat ->
    Forall (fun it => match it with UCp c _ => is_usv c | UBad _ _ => True end) (utf8_scan bs)).
  { clear bs. induction n as [|n IH]; intros bs Hlen.
    - destruct bs; [constructor | cbn in Hlen; lia].
    - destruct bs as [|b r]; [constructor|]. cbn [length] in Hlen. cbn [utf8_scan].
      assert (Hr : forall l, (length l <= length r)%nat ->
                Forall (fun it => match it with UCp c _ => is_usv c | UBad _ _ => True end) (utf8_scan l))
        by (intros l Hl; apply IH; lia).
      destruct (b <? 128) eqn:E1.
      { constructor; [unfold is_usv; lia | apply Hr; lia]. }
      destruct ((194 <=? b) && (b <=? 223)) eqn:E2.
      { destruct r as [|c1 r1]; [repeat constructor|].
        destruct (is_cont c1) eqn:Ec.
        - constructor; [unfold is_usv, is_cont in *; lia | apply Hr; cbn [length]; lia].
        - constructor; [exact I | apply Hr; lia]. }
      destruct ((224 <=? b) && (b <=? 239)) eqn:E3.
      { destruct r as [|c1 r1]; [repeat constructor|].
        destruct (ok3 b c1) eqn:Eo.
        - destruct r1 as [|c2 r2]; [repeat constructor|].
          destruct (is_cont c2) eqn:Ec.
          + constructor; [unfold is_usv, ok3, is_cont in *; lia | apply Hr; cbn [length]; lia].
          + constructor; [exact I | apply Hr; cbn [length]; lia].
        - constructor; [exact I | apply Hr; lia]. }
      destruct ((240 <=? b) && (b <=? 244)) eqn:E4.
      { destruct r as [|c1 r1]; [repeat constructor|].
        destruct (ok4 b c1) eqn:Eo.
        - destruct r1 as [|c2 r2]; [repeat constructor|].
          destruct (is_cont c2) eqn:Ec.
          + destruct r2 as [|c3 r3]; [repeat constructor|].
            destruct (is_cont c3) eqn:Ec3.
            * constructor; [unfold is_usv, ok4, is_cont in *; lia | apply Hr; cbn [length]; lia].
            * constructor; [exact I | apply Hr; cbn [length]; lia].
          + constructor; [exact I | apply Hr; cbn [length]; lia].
        - constructor; [exact I | apply Hr; lia]. }
      constructor; [exact I | apply Hr; lia]. }
  apply (H (length bs)). lia.
Qed.

Theorem utf8_lossy_usv bs : usv_list (utf8_lossy bs).
Proof.
  unfold utf8_lossy, usv_list. pose proof (utf8_scan_usv bs) as H.
  induction H as [|it l Hit _ IH]; cbn [map]; constructor; [|exact IH].
  destruct it; [exact Hit | unfold REPLACEMENT, is_usv; lia].
Qed.

Theorem parse_spec_usv bs : Forall (fun p => usv_list (fst p) /\ usv_list (snd p)) (parse_spec bs).
Proof.
  unfold parse_spec. apply Forall_flat_map. apply Forall_forall. intros piece _.
  unfold emit. destruct piece; [constructor|]. constructor; [|constructor].
  unfold pair_of. destruct (splitn2 61 (n :: piece)). cbn [fst snd]. unfold fdec.
  split; apply utf8_lossy_usv.
Qed.
