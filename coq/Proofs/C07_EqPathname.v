(* Proofs/C07_EqPathname.v - the pathname setter on records with an authority (a host, possibly the empty host):
   url::quirks::set_pathname is the Standard's pathname setter on every corrS pair whose model record has an authority,
   outside classes 1, 3, 4, 5, 9 of Known_C07 (pathname_step_auth).  Model side: Url::set_path evaluated forwards
   (set_path_fwd) on the text computed by Proofs/C07_PathText.v, the record it builds (with_path of Proofs/C06_Path.v)
   related to the Standard's record with the new list of segments (corr_with_path).  Standard's side: the closed
   form of Proofs/C07_SpecPath.v.  Opaque paths: the assignment is ignored on both sides (pathname_step_opaque). *)
From Coq Require Import ZifyBool ZifyN.
From RU Require Import Base.Prelude Base.Utf8 Base.Utf8Facts Model.AsciiSet Gen.Tables Model.PercentEncoding
  Model.HostT Model.UrlRecord Model.Parser Model.Setters Model.WF Model.KnownC01 Model.KnownC07 Spec.Whatwg
  Proofs.ListN Proofs.C03_WF Proofs.C06_List Proofs.C06_WFI Proofs.C06_Tail Proofs.C06_Suffix Proofs.C06_Front
  Proofs.C06_Steps Proofs.C06_FragQuery Proofs.C06_Path Proofs.C02_Parts Proofs.C08_Input
  Proofs.C01_Tables Proofs.C01_EqRun Proofs.C01_EqPathSpec Proofs.C01_EqPath Proofs.C01_EqSpSpec Proofs.C01_EqSpPath
  Proofs.C07_Defs Proofs.C07_Corr Proofs.C07_SpecRun Proofs.C07_SpecProto Proofs.C07_EqProto Proofs.C07_EqSix
  Proofs.C02_Path Proofs.C06_PathNoAuth Proofs.C07_SpecPath Proofs.C07_PathText Proofs.C07_PathKnown Proofs.C07_PathMarker.

(* the first byte of the value *)
Lemma head_is c (r : list N) k :
  (match c :: r with x :: _ => x =? k | [] => false end) = (c =? k).
Proof. reflexivity. Qed.

Lemma head47 c (r : list N) : (match c :: r with 47 :: _ => true | _ => false end) = (c =? 47).
Proof.
  destruct (c =? 47) eqn:E; [apply N.eqb_eq in E; subst c; reflexivity|].
  destruct c as [|p]; [reflexivity|].
  do 7 (try (destruct p as [p|p|]; try reflexivity)); discriminate E.
Qed.

Lemma head92 c (r : list N) : (match c :: r with 92 :: _ => true | _ => false end) = (c =? 92).
Proof.
  destruct (c =? 92) eqn:E; [apply N.eqb_eq in E; subst c; reflexivity|].
  destruct c as [|p]; [reflexivity|].
  do 8 (try (destruct p as [p|p|]; try reflexivity)); discriminate E.
Qed.

(* the argument url::quirks::set_pathname passes to Url::set_path *)
Definition path_arg (sp hh : bool) (v : list N) : list N :=
  match v with
  | [] => if sp || negb hh then [47] else []
  | c :: _ => if (c =? 47) || (sp && (c =? 92)) then v else 47 :: v
  end.

Section Pathname.
Variable dbg : bool.

Lemma q_set_pathname_arg u v st : cannot_be_a_base u = Some false -> u_scheme_type u = Some st ->
  q_set_pathname dbg u v = Setters.set_path dbg u (path_arg (st_is_special st) (has_host u) v).
Proof.
  intros Ec Es. unfold q_set_pathname. rewrite Ec. cbn [bindo]. rewrite Es. cbn [bindo]. unfold path_arg.
  destruct v as [|c r].
  - cbn [orb andb negb]. rewrite ?andb_false_r, ?orb_false_r. cbn [orb]. destruct (st_is_special st || negb (has_host u)); reflexivity.
  - rewrite (head47 c r), (head92 c r). destruct ((c =? 47) || st_is_special st && (c =? 92)); [reflexivity|].
    cbn [negb]. rewrite orb_true_r. reflexivity.
Qed.

(* Url::set_path, forwards *)
Lemma set_path_fwd u p P hh rem : wf_b u = true -> byte_eqb (ser u) (scheme_end u + 1) 47 = true ->
  parse_path_start dbg CSetter (scheme_type_of (nfirstn (scheme_end u) (ser u))) true (nfirstn (path_start u) (ser u)) p
    = POk (nfirstn (path_start u) (ser u) ++ P, hh, rem) ->
  Setters.set_path dbg u p = Some (with_path u P).
Proof.
  intros W Hsl Epp. unfold Setters.set_path. rewrite (take_after_path_eval u W). cbn [bindo].
  destruct (wf_ps_le_path_end u W) as [B5 B6]. pose proof (wf_se_lt_ps u W) as B0.
  destruct (wf_scheme_facts u W) as (Hse & Hc & Hlt).
  set (pe := path_end u) in *. set (ps := path_start u) in *.
  assert (nlen (nfirstn pe (ser u)) = pe) as Lpe by (apply nlen_nfirstn; exact B6).
  assert (cannot_be_a_base (set_ser u (nfirstn pe (ser u))) = Some false) as Ecbb.
  { unfold cannot_be_a_base, u_slice_from. cbn [ser set_ser scheme_end]. rewrite slice_from_o_some by lia. cbn [bindo].
    pose proof Hsl as C1. apply byte_eqb_nnth in C1.
    assert (nnth (nfirstn pe (ser u)) (scheme_end u + 1) = Some 47) as C1'.
    { destruct (N.lt_ge_cases (scheme_end u + 1) pe) as [Hlt1|Hge1].
      - rewrite nnth_nfirstn by lia. exact C1.
      - exfalso. assert (pe = scheme_end u + 1) as Epe by lia.
        pose proof (wf_qf_facts u W) as QF. pose proof (qf_q QF) as Q1. pose proof (qf_f QF) as Q2.
        pose proof (nnth_lt _ _ _ C1). unfold pe, path_end in Epe.
        destruct (query_start u) as [q|].
        + destruct Q1 as (_ & Qb & _). apply byte_eqb_nnth in Qb. rewrite Epe in Qb. congruence.
        + destruct (fragment_start u) as [f|]; [|lia].
          destruct Q2 as (_ & Qb & _). apply byte_eqb_nnth in Qb. rewrite Epe in Qb. congruence. }
    rewrite (nskipn_cons_of_nnth _ _ _ C1'). reflexivity. }
  rewrite Ecbb. cbn [bindo].
  assert (u_scheme_type (set_ser u (nfirstn pe (ser u))) = Some (scheme_type_of (nfirstn (scheme_end u) (ser u)))) as Est.
  { unfold u_scheme_type, scheme, u_slice_to. cbn [ser set_ser scheme_end]. rewrite slice_to_o_some by lia. cbn [bindo].
    rewrite nfirstn_nfirstn by lia. reflexivity. }
  rewrite Est. cbn [bindo].
  cbn [ser set_ser path_start]. unfold truncate. fold ps.
  rewrite nfirstn_nfirstn by lia.
  assert (nlen (nfirstn ps (ser u)) = ps) as Ls0 by (apply nlen_nfirstn; lia).
  fold ps in Epp. rewrite Epp. cbn [unpres bindo].
  unfold restore_after_path. cbn [ser set_ser query_start fragment_start]. rewrite Lpe.
  assert (match query_start u with Some i => pe <= i | None => True end) as Gq.
  { unfold pe, path_end. destruct (query_start u); [lia | exact I]. }
  assert (match fragment_start u with Some i => pe <= i | None => True end) as Gf.
  { pose proof (qf_qf (wf_qf_facts u W)) as Q3. unfold pe, path_end.
    destruct (query_start u), (fragment_start u); try exact I; lia. }
  rewrite !adjust_opt_ok by assumption. cbn [bindo].
  f_equal. unfold with_path. fold pe ps. rewrite nlen_app, Ls0. rewrite <- app_assoc. reflexivity.
Qed.


(* the value against the two path start states *)
Lemma spathO_nil_sp : spathO true [] [] [] = [[]].
Proof. vm_compute. reflexivity. Qed.

Lemma set_path_nil_same u0 : su_path u0 = SPList [] -> Whatwg.set_path u0 (SPList []) = u0.
Proof. destruct u0; cbn; intros ->; reflexivity. Qed.

Lemma spathO_nil_ns : spathO false [] [] [] = [[]].
Proof. vm_compute. reflexivity. Qed.

(* the shape of the new list of segments: empty (empty value on a URL with a host), or the override path state on
   the value without its leading '/' / on the whole value when it is not led by '/' *)
Definition segs_shape (hnull : bool) (t : list N) (segs : list (list N)) : Prop :=
  (hnull = false /\ segs = [])
  \/ exists x, segs = spathO false x [] [] /\ (t = 47 :: x \/ (t = x /\ starts_with_byte 47 x = false)).

Lemma path_text_ns s0 u0 v hh : usv_list v -> su_path u0 = SPList [] -> is_special u0 = false ->
  (if host_is_null (su_host u0) then hh = false
   else (match ntnl v with [] => true | _ => false end) && (negb (match v with [] => true | _ => false end) || negb hh) = false) ->
  has_drive_segment (ntnl v) && has_dotdot (ntnl v) = false ->
  (match v with c :: _ => is_tnl c | [] => false end) && starts_with_byte 47 (ntnl v) = false ->
  exists segs rem,
    parse_path_start dbg CSetter STNotSpecial true s0 (path_arg false hh v)
    = POk (s0 ++ flat_map (fun s => 47 :: s) segs, true, rem)
    /\ pstartO u0 (ntnl v) = Whatwg.set_path u0 (SPList segs)
    /\ forallb C06_WFI.no_qh (flat_map (fun s => 47 :: s) segs) = true
    /\ segs_shape (host_is_null (su_host u0)) (ntnl v) segs.
Proof.
  intros Hu HP Hsp K5 K1 K9. destruct v as [|c r].
  - destruct (host_is_null (su_host u0)) eqn:Hnull.
    + subst hh. unfold path_arg. cbn [orb negb].
      assert (usv_list [47]) as Hu' by (apply usv_cons; split; [left; lia | constructor]).
      destruct (pps_setter_exact_ns dbg s0 [47] [] true Hu' (inp_next_cons 47 [] eq_refl) (known1_okO false [] eq_refl)) as [rem E].
      exists (spathO false (ntnl []) [] []), rem. split; [exact E|]. split; [|split; [apply spathO_flat_no_qh|]].
      * unfold pstartO. rewrite Hsp, Hnull. cbn [ntnl filter]. rewrite spathO_nil_ns. reflexivity.
      * right. exists []. split; [reflexivity|]. right. split; reflexivity.
    + cbn [ntnl filter andb negb orb] in K5. destruct hh; [|discriminate K5].
      exists [], []. unfold path_arg. cbn [orb negb flat_map]. rewrite app_nil_r.
      split; [apply pps_setter_empty_ns; [constructor | reflexivity]|].
      split; [|split; [reflexivity | left; split; reflexivity]].
      unfold pstartO. rewrite Hsp, Hnull. cbn [ntnl filter]. symmetry. exact (set_path_nil_same u0 HP).
  - unfold path_arg. cbn [andb]. rewrite orb_false_r. destruct (c =? 47) eqn:E47.
    + apply N.eqb_eq in E47. subst c. rewrite (ntnl_cons 47 r eq_refl) in *.
      destruct (pps_setter_exact_ns dbg s0 (47 :: r) r true Hu (inp_next_cons 47 r eq_refl)
                  (known1_okO_tail false 47 (ntnl r) eq_refl K1)) as [rem E].
      exists (spathO false (ntnl r) [] []), rem. split; [exact E|]. split; [|split; [apply spathO_flat_no_qh|]].
      * unfold pstartO. rewrite Hsp. reflexivity.
      * right. exists (ntnl r). split; [reflexivity | left; reflexivity].
    + assert (usv_list (47 :: c :: r)) as Hu' by (apply usv_cons; split; [left; lia | exact Hu]).
      destruct (pps_setter_exact_ns dbg s0 (47 :: c :: r) (c :: r) true Hu' (inp_next_cons 47 (c :: r) eq_refl)
                  (known1_okO false (ntnl (c :: r)) K1)) as [rem E].
      exists (spathO false (ntnl (c :: r)) [] []), rem. split; [exact E|].
      cbn iota in K9.
      assert (starts_with_byte 47 (ntnl (c :: r)) = false) as Hsb.
      { destruct (is_tnl c) eqn:Et; [exact K9|]. rewrite (ntnl_cons c r Et). exact E47. }
      split; [|split; [apply spathO_flat_no_qh|]].
      * unfold pstartO. rewrite Hsp.
        destruct (ntnl (c :: r)) as [|d t'] eqn:Ent.
        -- destruct (host_is_null (su_host u0)); [rewrite spathO_nil_ns; reflexivity|].
           destruct (is_tnl c) eqn:Et; [|rewrite (ntnl_cons c r Et) in Ent; discriminate Ent].
           cbn [andb negb orb] in K5. discriminate K5.
        -- cbn [starts_with_byte] in Hsb. rewrite Hsb. reflexivity.
      * right. exists (ntnl (c :: r)). split; [reflexivity|]. right. split; [reflexivity | exact Hsb].
Qed.

Lemma path_text_sp s0 u0 v hh : usv_list v -> su_path u0 = SPList [] -> is_special u0 = true ->
  has_drive_segment (ntnl v) && has_dotdot (ntnl v) = false ->
  (match v with c :: _ => is_tnl c | [] => false end) && (starts_with_byte 47 (ntnl v) || starts_with_byte 92 (ntnl v)) = false ->
  exists segs rem,
    parse_path_start dbg CSetter STSpecialNotFile true s0 (path_arg true hh v)
    = POk (s0 ++ flat_map (fun s => 47 :: s) segs, true, rem)
    /\ pstartO u0 (ntnl v) = Whatwg.set_path u0 (SPList segs)
    /\ forallb C06_WFI.no_qh (flat_map (fun s => 47 :: s) segs) = true.
Proof.
  intros Hu HP Hsp K1 K9.
  assert (usv_list (47 :: v)) as Hu' by (apply usv_cons; split; [left; lia | exact Hu]).
  destruct v as [|c r].
  - unfold path_arg. cbn [orb].
    destruct (pps_setter_exact_sp dbg s0 47 [] true Hu' eq_refl (known1_okO true [] eq_refl)) as [rem E].
    exists (spathO true (ntnl []) [] []), rem. split; [exact E|]. split; [|apply spathO_flat_no_qh].
    unfold pstartO. rewrite Hsp. cbn [ntnl filter]. rewrite spathO_nil_sp. reflexivity.
  - unfold path_arg. cbn [andb]. change ((c =? 47) || (c =? 92)) with (is_sl c). destruct (is_sl c) eqn:Esl.
    + assert (is_tnl c = false) as Et by (unfold is_sl in Esl; unfold is_tnl; lia).
      rewrite (ntnl_cons c r Et) in *.
      destruct (pps_setter_exact_sp dbg s0 c r true Hu Esl (known1_okO_tail true c (ntnl r) Esl K1)) as [rem E].
      exists (spathO true (ntnl r) [] []), rem. split; [exact E|]. split; [|apply spathO_flat_no_qh].
      unfold pstartO. rewrite Hsp, sepc_true, Esl. reflexivity.
    + destruct (pps_setter_exact_sp dbg s0 47 (c :: r) true Hu' eq_refl (known1_okO true (ntnl (c :: r)) K1)) as [rem E].
      exists (spathO true (ntnl (c :: r)) [] []), rem. split; [exact E|]. split; [|apply spathO_flat_no_qh].
      unfold pstartO. rewrite Hsp. cbn iota in K9.
      destruct (is_tnl c) eqn:Et.
      * destruct (ntnl (c :: r)) as [|d t'] eqn:Ent; [rewrite spathO_nil_sp; reflexivity|].
        cbn [starts_with_byte andb] in K9. rewrite sepc_true. unfold is_sl. rewrite K9. reflexivity.
      * rewrite (ntnl_cons c r Et). rewrite sepc_true, Esl. reflexivity.
Qed.

End Pathname.

Section Records.
Variable dbg : bool.
Variable hp ho : list N -> result host.
Variable hd : host -> list N.
Variable shp : bool -> list N -> option spec_host.
Variable shs : spec_host -> list N.

Lemma sane_set_path su segs : sane su -> sane (Whatwg.set_path su (SPList segs)).
Proof. intros [A B C]. constructor; [exact A | exact B | intros H; discriminate H]. Qed.

Lemma corr_with_path u su segs : corr dbg shs u su -> has_authority_b u = true ->
  forallb C06_WFI.no_qh (flat_map (fun s => 47 :: s) segs) = true ->
  corr dbg shs (with_path u (flat_map (fun s => 47 :: s) segs)) (Whatwg.set_path su (SPList segs)).
Proof.
  intros C Ha HQ. pose proof (co_wf _ _ _ _ C) as W.
  set (P := flat_map (fun s => 47 :: s) segs) in *.
  assert (P = [] \/ exists r, P = 47 :: r) as HP2 by (unfold P; destruct segs; [left | right; eexists]; reflexivity).
  pose proof (wp_wf u P W Ha HQ HP2) as W'.
  destruct (wp_front dbg u P W Ha HQ HP2) as (F1 & F2 & F3 & F4 & F5).
  pose proof (wp_has_authority u P W Ha) as Ha'.
  constructor.
  - exact W'.
  - exact (wp_host_text_ok u P W Ha HP2 (co_ht _ _ _ _ C)).
  - rewrite F1. exact (co_scheme _ _ _ _ C).
  - rewrite F2. exact (co_user _ _ _ _ C).
  - rewrite F3. exact (co_pass _ _ _ _ C).
  - rewrite F4. exact (co_host _ _ _ _ C).
  - exact (co_hh _ _ _ _ C).
  - rewrite Ha', <- Ha. exact (co_auth _ _ _ _ C).
  - rewrite Ha', <- Ha. exact (co_at _ _ _ _ C).
  - rewrite F5. exact (co_port _ _ _ _ C).
  - exact (wp_path u P W Ha HQ HP2).
  - rewrite (wp_query dbg u P W Ha HQ HP2). exact (co_query _ _ _ _ C).
  - rewrite (wp_fragment dbg u P W Ha HQ HP2). exact (co_frag _ _ _ _ C).
  - rewrite Ha'. cbn [negb andb]. unfold spec_marker. cbn [su_host Whatwg.set_path].
    pose proof (co_auth _ _ _ _ C) as K. rewrite Ha in K. destruct (su_host su); [reflexivity | discriminate K].
  - rewrite (is_opaque_by_path _ P W' (wp_path u P W Ha HQ HP2)), Ha'. reflexivity.
  - exact (co_uclean _ _ _ _ C).
Qed.

(* an opaque path: the assignment is ignored on both sides *)
Theorem pathname_step_opaque u su v : corrS dbg shs u su -> has_opaque_path su = true ->
  exists u' su', model_set dbg hp ho hd QPathname u v = Some u' /\ spec_step shp QPathname su v = Some su'
    /\ corrS dbg shs u' su'.
Proof.
  intros [C S] Hop. pose proof (co_wf _ _ _ _ C) as W.
  pose proof (cannot_be_a_base_eval u W) as Ecb.
  change (negb (byte_eqb (ser u) (scheme_end u + 1) 47)) with (is_opaque_b u) in Ecb.
  rewrite (co_opaque _ _ _ _ C), Hop in Ecb.
  exists u, su. cbn [model_set]. unfold q_set_pathname. rewrite Ecb. cbn [bindo].
  unfold spec_step. cbn [setter_of_q]. rewrite (spec_pathname_opaque shp su v Hop).
  split; [reflexivity|]. split; [reflexivity | split; assumption].
Qed.

(* an authority: the Standard's pathname setter, outside classes 1, 3, 4, 5, 9 of Known_C07 *)
Theorem pathname_step_auth u su v : corrS dbg shs u su -> usv_list v -> known_c07 u QPathname v = 0 ->
  has_authority_b u = true ->
  exists u' su', model_set dbg hp ho hd QPathname u v = Some u' /\ spec_step shp QPathname su v = Some su'
    /\ corrS dbg shs u' su'.
Proof.
  intros [C S] Hv Hk Ha. pose proof (co_wf _ _ _ _ C) as W.
  assert (byte_eqb (ser u) (scheme_end u + 1) 47 = true) as Hsl.
  { pose proof Ha as Ha2. unfold has_authority_b in Ha2. apply css_bytes in Ha2. destruct Ha2 as (_ & C1 & _).
    apply byte_eqb_true_iff. exact C1. }
  pose proof (cannot_be_a_base_eval u W) as Ecb. rewrite Hsl in Ecb. cbn [negb] in Ecb.
  assert (has_opaque_path su = false) as Hop.
  { rewrite <- (co_opaque _ _ _ _ C). unfold is_opaque_b. rewrite Hsl. reflexivity. }
  unfold known_c07, u_cbb, u_scheme_or_empty, u_path_or_empty, u_has_authority in Hk.
  rewrite Ecb, (co_scheme _ _ _ _ C), (co_path _ _ _ _ C), (has_authority_eval false u W), Ha in Hk.
  destruct (list_eqb (su_scheme su) s_file) eqn:Ef; [discriminate Hk|].
  match type of Hk with (if ?b then _ else _) = _ => destruct b eqn:E3; [discriminate Hk|] end.
  match type of Hk with (if ?b then _ else _) = _ => destruct b eqn:K1; [discriminate Hk|] end.
  match type of Hk with (if ?b then _ else _) = _ => destruct b eqn:K5; [discriminate Hk|] end.
  match type of Hk with (if ?b then _ else _) = _ => destruct b eqn:K9; [discriminate Hk|] end.
  clear Hk E3. change (no_tnl v) with (ntnl v) in *. change s_file with str_file in Ef.
  pose proof (special_schemes_are_the_standards (su_scheme su)) as Esp. fold (is_special su) in Esp.
  rewrite Esp in K5, K9.
  assert (st_is_file (scheme_type_of (su_scheme su)) = false) as Enf by (rewrite file_test_same; exact Ef).
  assert (scheme_type_of (su_scheme su) = if is_special su then STSpecialNotFile else STNotSpecial) as Est.
  { rewrite <- Esp. destruct (scheme_type_of (su_scheme su)); [discriminate Enf | reflexivity | reflexivity]. }
  assert (nfirstn (scheme_end u) (ser u) = su_scheme su) as Esch.
  { pose proof (co_scheme _ _ _ _ C) as K. destruct (wf_scheme_facts u W) as (_ & _ & Hlt).
    unfold scheme, u_slice_to in K. rewrite slice_to_o_some in K by lia. injection K as K. exact K. }
  assert (u_scheme_type u = Some (scheme_type_of (su_scheme su))) as Eust.
  { unfold u_scheme_type. rewrite (co_scheme _ _ _ _ C). reflexivity. }
  cbn [model_set]. rewrite (q_set_pathname_arg dbg u v _ Ecb Eust), Esp.
  unfold spec_step. cbn [setter_of_q]. rewrite (spec_pathname_closed shp su v Hop Ef). change (notnl v) with (ntnl v).
  set (u0 := Whatwg.set_path su (SPList [])).
  assert (exists segs rem,
            parse_path_start dbg CSetter (scheme_type_of (su_scheme su)) true (nfirstn (path_start u) (ser u))
              (path_arg (is_special su) (has_host u) v)
            = POk (nfirstn (path_start u) (ser u) ++ flat_map (fun s => 47 :: s) segs, true, rem)
            /\ pstartO u0 (ntnl v) = Whatwg.set_path u0 (SPList segs)
            /\ forallb C06_WFI.no_qh (flat_map (fun s => 47 :: s) segs) = true) as (segs & rem & Epp & Espec & HQ).
  { rewrite Est. destruct (is_special su) eqn:Es.
    - apply path_text_sp; [exact Hv | reflexivity | exact Es | exact K1 | exact K9].
    - assert (host_is_null (su_host u0) = false) as Hnull.
      { unfold u0. cbn [su_host Whatwg.set_path]. pose proof (co_auth _ _ _ _ C) as K. rewrite Ha in K.
        destruct (su_host su); [reflexivity | discriminate K]. }
      destruct (path_text_ns dbg (nfirstn (path_start u) (ser u)) u0 v (has_host u) Hv eq_refl Es) as (segs & rem & A1 & A2 & A3 & _).
      + rewrite Hnull. cbn [negb andb] in K5. exact K5.
      + exact K1.
      + cbn [andb] in K9. rewrite orb_false_r in K9. exact K9.
      + exists segs, rem. split; [exact A1|]. split; assumption. }
  rewrite <- Esch in Epp.
  rewrite (set_path_fwd dbg u _ _ true rem W Hsl Epp).
  exists (with_path u (flat_map (fun s => 47 :: s) segs)), (Whatwg.set_path su (SPList segs)).
  split; [reflexivity|]. split; [rewrite Espec; unfold u0; destruct su; reflexivity|].
  split; [exact (corr_with_path u su segs C Ha HQ) | exact (sane_set_path su segs S)].
Qed.

(* no host: no authority, a '/'-led path, no marker *)
Lemma spathO_ns_no_slash x : forallb no_slash (spathO false x [] []) = true.
Proof. rewrite spathO_ns. apply spath_no_slash; reflexivity. Qed.

Lemma flat_not_ss segs : forallb no_slash segs = true -> head_empty segs = false ->
  starts_with s_ss (flat_map (fun s => 47 :: s) segs) = false.
Proof.
  intros Hn Hh. destruct segs as [|p0 rest]; [reflexivity|].
  pose proof (marker_flat (p0 :: rest) ltac:(discriminate) Hn) as M. unfold marker_of in M.
  destruct (starts_with s_ss (flat_map (fun s => 47 :: s) (p0 :: rest))); [|reflexivity].
  destruct rest as [|p1 rest]; [discriminate M|]. cbn [head_empty] in Hh. rewrite Hh in M. discriminate M.
Qed.

Lemma corr_with_path_noauth u su segs : corr dbg shs u su -> has_authority_b u = false ->
  path_start u = scheme_end u + 1 -> segs <> [] ->
  forallb C06_WFI.no_qh (flat_map (fun s => 47 :: s) segs) = true ->
  forallb no_slash segs = true -> head_empty segs = false ->
  corr dbg shs (with_path u (flat_map (fun s => 47 :: s) segs)) (Whatwg.set_path su (SPList segs)).
Proof.
  intros C Ha Hnm Hne HQ Hns Hhe. pose proof (co_wf _ _ _ _ C) as W.
  pose proof (flat_not_ss segs Hns Hhe) as HS.
  set (P := flat_map (fun s => 47 :: s) segs) in *.
  assert (exists r, P = 47 :: r) as [r0 EP] by (unfold P; destruct segs; [contradiction | eexists; reflexivity]).
  assert (P = [] \/ exists r, P = 47 :: r) as HP2 by (right; exists r0; exact EP).
  pose proof (wn_wf u P W Ha Hnm HQ HP2 HS) as W'.
  destruct (wn_front dbg u P W Ha Hnm HQ HP2 HS) as (F1 & F2 & F3 & F4 & F5).
  pose proof (wn_has_authority u P W Ha Hnm HP2 HS) as Ha'.
  pose proof (wn_path u P W Ha Hnm HQ HP2 HS) as Hpath.
  pose proof (co_auth _ _ _ _ C) as Kh. rewrite Ha in Kh.
  constructor.
  - exact W'.
  - exact (wn_host_text_ok u P W Ha).
  - rewrite F1. exact (co_scheme _ _ _ _ C).
  - rewrite F2. exact (co_user _ _ _ _ C).
  - rewrite F3. exact (co_pass _ _ _ _ C).
  - rewrite F4. exact (co_host _ _ _ _ C).
  - exact (co_hh _ _ _ _ C).
  - rewrite Ha', <- Ha. exact (co_auth _ _ _ _ C).
  - rewrite Ha', <- Ha. exact (co_at _ _ _ _ C).
  - rewrite F5. exact (co_port _ _ _ _ C).
  - exact Hpath.
  - rewrite (wn_query dbg u P W Ha Hnm HQ HP2 HS). exact (co_query _ _ _ _ C).
  - rewrite (wn_fragment dbg u P W Ha Hnm HQ HP2 HS). exact (co_frag _ _ _ _ C).
  - rewrite Ha'. cbn [negb andb]. change (path_start (with_path u P)) with (path_start u).
    change (scheme_end (with_path u P)) with (scheme_end u). rewrite Hnm.
    replace (scheme_end u + 1 =? scheme_end u + 3) with false by lia.
    unfold spec_marker. cbn [su_host su_path Whatwg.set_path].
    destruct (su_host su); [discriminate Kh|]. symmetry. exact Hhe.
  - rewrite (is_opaque_by_path _ P W' Hpath), Ha'. rewrite EP. cbn [starts_with]. change (47 =? 47) with true.
    cbn [andb negb]. rewrite andb_false_r. reflexivity.
  - exact (co_uclean _ _ _ _ C).
Qed.

Theorem pathname_step_noauth u su v : corrS dbg shs u su -> usv_list v -> known_c07 u QPathname v = 0 ->
  has_authority_b u = false -> has_opaque_path su = false ->
  exists u' su', model_set dbg hp ho hd QPathname u v = Some u' /\ spec_step shp QPathname su v = Some su'
    /\ corrS dbg shs u' su'.
Proof.
  intros [C S] Hv Hk Ha Hop. pose proof (co_wf _ _ _ _ C) as W.
  pose proof (wf_noauth_facts u W Ha) as F.
  assert (has_host u = false) as Hh by (unfold has_host; rewrite (nf_host F); reflexivity).
  assert (byte_eqb (ser u) (scheme_end u + 1) 47 = true) as Hsl.
  { pose proof (co_opaque _ _ _ _ C) as K. rewrite Hop in K. unfold is_opaque_b in K. apply negb_false_iff in K. exact K. }
  pose proof (cannot_be_a_base_eval u W) as Ecb. rewrite Hsl in Ecb. cbn [negb] in Ecb.
  pose proof (co_auth _ _ _ _ C) as Kh. rewrite Ha in Kh.
  assert (su_host su = None) as Ehost by (destruct (su_host su); [discriminate Kh | reflexivity]).
  unfold known_c07, u_cbb, u_scheme_or_empty, u_path_or_empty, u_has_authority in Hk.
  rewrite Ecb, (co_scheme _ _ _ _ C), (co_path _ _ _ _ C), (has_authority_eval false u W), Ha, Hh in Hk.
  destruct (list_eqb (su_scheme su) s_file) eqn:Ef; [discriminate Hk|].
  match type of Hk with (if ?b then _ else _) = _ => destruct b eqn:E3; [discriminate Hk|] end.
  match type of Hk with (if ?b then _ else _) = _ => destruct b eqn:K1; [discriminate Hk|] end.
  match type of Hk with (if ?b then _ else _) = _ => destruct b eqn:K5; [discriminate Hk|] end.
  match type of Hk with (if ?b then _ else _) = _ => destruct b eqn:K9; [discriminate Hk|] end.
  clear Hk K5. change (no_tnl v) with (ntnl v) in *. change s_file with str_file in Ef.
  cbn [negb andb] in E3. apply orb_false_iff in E3. destruct E3 as [E3a E3b].
  apply orb_false_iff in E3b. destruct E3b as [E3b E3c].
  (* not special *)
  assert (is_special su = false) as Es.
  { destruct (is_special su) eqn:E; [|reflexivity]. destruct (sa_special su S E) as [K _]. rewrite Ehost in K. discriminate K. }
  pose proof (special_schemes_are_the_standards (su_scheme su)) as Esp. fold (is_special su) in Esp. rewrite Es in Esp.
  rewrite Esp in K9. cbn [andb] in K9. rewrite orb_false_r in K9.
  (* no marker *)
  assert (path_start u = scheme_end u + 1) as Hnm.
  { destruct (nf_ps F) as [X|(X & _)]; [exact X|]. exfalso.
    pose proof (co_marker _ _ _ _ C) as M. rewrite Ha, X, N.eqb_refl in M. cbn [negb andb] in M.
    unfold spec_marker in M. rewrite Ehost in M. unfold serialize_path in E3a.
    destruct (su_path su) as [o|[|p0 [|p1 pr]]]; try discriminate M.
    destruct p0; [|discriminate M]. cbn in E3a. discriminate E3a. }
  assert (st_is_file (scheme_type_of (su_scheme su)) = false) as Enf by (rewrite file_test_same; exact Ef).
  assert (scheme_type_of (su_scheme su) = STNotSpecial) as Est.
  { destruct (scheme_type_of (su_scheme su)); [discriminate Enf | discriminate Esp | reflexivity]. }
  assert (nfirstn (scheme_end u) (ser u) = su_scheme su) as Esch.
  { pose proof (co_scheme _ _ _ _ C) as K. destruct (wf_scheme_facts u W) as (_ & _ & Hlt).
    unfold scheme, u_slice_to in K. rewrite slice_to_o_some in K by lia. injection K as K. exact K. }
  assert (u_scheme_type u = Some (scheme_type_of (su_scheme su))) as Eust.
  { unfold u_scheme_type. rewrite (co_scheme _ _ _ _ C). reflexivity. }
  cbn [model_set]. rewrite (q_set_pathname_arg dbg u v _ Ecb Eust), Esp, Hh.
  unfold spec_step. cbn [setter_of_q]. rewrite (spec_pathname_closed shp su v Hop Ef). change (notnl v) with (ntnl v).
  set (u0 := Whatwg.set_path su (SPList [])).
  assert (host_is_null (su_host u0) = true) as Hnull by (unfold u0; cbn [su_host Whatwg.set_path]; rewrite Ehost; reflexivity).
  destruct (path_text_ns dbg (nfirstn (path_start u) (ser u)) u0 v false Hv eq_refl Es) as (segs & rem & Epp & Espec & HQ & Hshape);
    [rewrite Hnull; reflexivity | exact K1 | exact K9 |].
  rewrite Hnull in Hshape. destruct Hshape as [[X _]|(x & -> & Hx)]; [discriminate X|].
  rewrite <- Est, <- Esch in Epp.
  rewrite (set_path_fwd dbg u _ _ true rem W Hsl Epp).
  exists (with_path u (flat_map (fun s => 47 :: s) (spathO false x [] []))), (Whatwg.set_path su (SPList (spathO false x [] []))).
  split; [reflexivity|]. split; [rewrite Espec; unfold u0; destruct su; reflexivity|].
  split; [|exact (sane_set_path su _ S)].
  apply corr_with_path_noauth; [exact C | exact Ha | exact Hnm | apply spathO_nonempty | exact HQ | apply spathO_ns_no_slash|].
  destruct Hx as [Et|[Et Hsb]].
  - rewrite Et in E3b, E3c. exact (no_marker_tail x E3b E3c).
  - rewrite Et in E3c. exact (no_marker x Hsb E3c).
Qed.

(* pathname: every corrS pair, outside Known_C07 *)
Theorem pathname_step u su v : corrS dbg shs u su -> usv_list v -> known_c07 u QPathname v = 0 ->
  exists u' su', model_set dbg hp ho hd QPathname u v = Some u' /\ spec_step shp QPathname su v = Some su'
    /\ corrS dbg shs u' su'.
Proof.
  intros CS Hv Hk. destruct (has_opaque_path su) eqn:Hop; [exact (pathname_step_opaque u su v CS Hop)|].
  destruct (has_authority_b u) eqn:Ha.
  - exact (pathname_step_auth u su v CS Hv Hk Ha).
  - exact (pathname_step_noauth u su v CS Hv Hk Ha Hop).
Qed.

End Records.
