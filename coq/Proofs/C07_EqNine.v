(* Proofs/C07_EqNine.v - the host setter on EVERY value (Proofs/C07_EqHostNoPort.v: no port part;
   Proofs/C07_EqHostPort.v: a port part) preserves corrS outside classes 2, 3, 4, 7 of Known_C07 (host_step), for host
   functions that agree on every string; the assignments through nine of the ten setters (all but pathname). *)
From Coq Require Import Bool.
From RU Require Import Base.Prelude Base.Utf8 Model.AsciiSet Gen.Tables Model.PercentEncoding
  Model.HostT Model.UrlRecord Model.Parser Model.Setters Model.WF Model.KnownC01 Model.KnownC07 Spec.Whatwg
  Proofs.ListN Proofs.C03_WF Proofs.C06_Steps Proofs.C06_FragQuery Proofs.C06_Host Proofs.C01_EqRun
  Proofs.C07_Defs Proofs.C07_Histories Proofs.C07_Corr Proofs.C07_SpecRun Proofs.C07_EqFive Proofs.C07_SpecProto Proofs.C07_EqProto Proofs.C07_EqSix
  Proofs.C07_SpecHost Proofs.C07_EqHostname Proofs.C07_EqSeven Proofs.C07_ParseExtra Proofs.C07_EqParseAll
  Proofs.C07_EqHostNoPort Proofs.C07_SpecHostPort Proofs.C07_EqHostPort.

(* host, every value *)
Section Host.
Variable dbg : bool.
Variable hp ho : list N -> result host.
Variable hd : host -> list N.
Variable shp : bool -> list N -> option spec_host.
Variable shs : spec_host -> list N.
Hypothesis HF : host_fns_ok hp ho hd shp shs.

Theorem host_step u su v : corrS dbg shs u su -> usv_list v -> known_c07 u QHost v = 0 ->
  exists u' su', model_set dbg hp ho hd QHost u v = Some u' /\ spec_step shp QHost su v = Some su'
    /\ corrS dbg shs u' su'.
Proof.
  intros CS Hv Hk. destruct (host_value_portless u v) eqn:Hpl.
  - exact (host_portless_step dbg hp ho hd shp shs HF u su v CS Hv Hk Hpl).
  - destruct CS as [C S]. unfold host_value_portless, u_scheme_or_empty in Hpl.
    rewrite (co_scheme _ _ _ _ C) in Hpl. apply negb_false_iff in Hpl.
    destruct (host_colon_step dbg hp ho hd shp shs u su v HF C Hk Hpl) as (u' & su' & A & B & C').
    exists u', su'. split; [exact A|]. split; [exact B|]. split; [exact C'|].
    unfold spec_step in B. cbn [setter_of_q] in B.
    destruct (spec_set shp SetHost su v) as [x|] eqn:E; [|discriminate B]. injection B as <-.
    destruct (has_opaque_path su) eqn:Hop.
    { cbn [spec_set] in E. rewrite Hop in E. injection E as <-. exact S. }
    pose proof (co_wf _ _ _ _ C) as W. pose proof (cannot_be_a_base_eval u W) as Ecb.
    change (negb (byte_eqb (ser u) (scheme_end u + 1) 47)) with (is_opaque_b u) in Ecb.
    rewrite (co_opaque _ _ _ _ C), Hop in Ecb.
    unfold known_c07, u_cbb, u_scheme_or_empty in Hk. rewrite Ecb, (co_scheme _ _ _ _ C) in Hk.
    destruct (list_eqb (su_scheme su) s_file) eqn:Ef; [discriminate Hk|]. change s_file with str_file in Ef.
    exact (spec_host_sane shp su v x (host_fns_empty_only hp ho hd shp shs HF) Ef S E).
Qed.

End Host.

(* nine setters *)
Section Nine.
Variable shp : bool -> list N -> option spec_host.
Variable shs : spec_host -> list N.

(* the assignments covered: any value for the seven and for host; for href a value that fits and whose scheme is
   not "file" (href_ok of Proofs/C07_EqParseAll.v) *)
Definition nine_ok (s : qsetter) (v : list N) : Prop :=
  seven s = true \/ s = QHost \/ (s = QHref /\ href_ok shp shs v).

Fixpoint nine_ops (ops : list (qsetter * list N)) : Prop :=
  match ops with
  | [] => True
  | (s, v) :: r => nine_ok s v /\ usv_list v /\ nine_ops r
  end.

End Nine.
