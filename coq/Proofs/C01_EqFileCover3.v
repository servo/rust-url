(* Proofs/C01_EqFileCover3.v - known_c01 (Known_C01): class 1 of known_c01_v3 without ONE leading separator
   against a FILE base, the host of the base kept (Proofs/C01_EqFileOne.v arm (a); Model/KnownC01.v k_one_keep /
   k_file_narrow; twin harness/src/known01.rs).  known_c01_v3 is the predicate of Proofs/C01_EqFileCover2.v.  Here: the recogniser on the model record
   of the base and the raw text is sound for the class on the Standard's side (k_one_keep_ok); known_c01_v3 = 0 ->
   known_c01 = 0; coverage of known_c01 = 0 by in_proved_class6 = in_proved_class5 + the two classes; the assembled
   statement (statement_all6). *)
From Coq Require Import ZifyBool ZifyN.
From RU Require Import Base.Prelude Base.Utf8 Model.HostT Model.UrlRecord Model.Parser Model.WF Model.Host
  Model.KnownC01 Spec.Whatwg Spec.WhatwgHostParse Proofs.C03_WF Proofs.C08_Input Proofs.C09_Host
  Proofs.C01_EqRun Proofs.C01_EqApi Proofs.C01_EqRef Proofs.C01_EqRelPath Proofs.C01_EqRelArms
  Proofs.C01_EqSpSpec Proofs.C01_EqAsm Proofs.C01_EqShape Proofs.C01_KnownExact Proofs.C01_Override
  Proofs.C01_EqCover Proofs.C01_EqFilePath Proofs.C01_EqFile Proofs.C01_EqFileCover Proofs.C01_EqFileBase
  Proofs.C01_EqFileCover2 Proofs.C01_EqFileOne.



Lemma ntnl_fixed l : forallb (fun c => negb (is_tnl c)) l = true -> ntnl l = l.
Proof.
  induction l as [|c r IH]; [reflexivity|]. cbn [forallb]. intros H. apply andb_true_iff in H. destruct H as [H1 H2].
  apply negb_true_iff in H1. rewrite ntnl_cons by exact H1. rewrite (IH H2). reflexivity.
Qed.

Lemma ntnl_clean l : forallb (fun c => negb (is_tnl c)) (ntnl l) = true.
Proof. unfold ntnl. apply forallb_forall. intros x Hx. apply filter_In in Hx. exact (proj2 Hx). Qed.

Section KOne.
Variable dbg : bool.
Variable shs : spec_host -> list N.

Lemma base_path_text b sb : related dbg shs b sb -> path b = Some (serialize_path sb).
Proof.
  intros R. pose proof (rel_wf _ _ _ _ R) as W.
  destruct (accessors_reconcatenate dbg b W)
    as (sch & un & pw & hs & pth & qb & fb & Es1 & Eun & Epw & Ehs & Ept & Eq & Ef & _).
  pose proof (api_by_accessors dbg b W sch un pw hs pth qb fb Es1 Eun Epw Ehs Ept Eq Ef) as Ab.
  rewrite (rel_api _ _ _ _ R) in Ab. unfold api_of_parts, spec_api_list in Ab.
  injection Ab as _ _ _ _ _ _ _ E8 _ _. unfold get_pathname in E8. rewrite E8. exact Ept.
Qed.

(* R tab-free (any cleaned text is) *)
Theorem k_one_keep_ok b sb R : related dbg shs b sb -> spec_base_ok sb = true ->
  list_eqb (b_scheme b) s_file = true -> k_cbb b = false ->
  forallb (fun c => negb (is_tnl c)) R = true ->
  k_one_keep b R = true -> k_file_ok R = true -> file_one_ok sb R = true.
Proof.
  intros Rl Hbok Hbf Hcb Hcl Hk Hf.
  apply andb_true_iff in Hbok. destruct Hbok as [_ HnsP].
  unfold file_one_ok. rewrite <- (related_cbb dbg shs b sb Rl), Hcb, <- (rel_sch _ _ _ _ Rl).
  change str_file with s_file. rewrite Hbf. cbn [negb andb].
  destruct R as [|c1 R1]; [discriminate Hk|]. cbn [k_one_keep] in Hk.
  apply andb_true_iff in Hk. destruct Hk as [Hk Hfirst]. apply andb_true_iff in Hk. destruct Hk as [Hk Hauth].
  apply andb_true_iff in Hk. destruct Hk as [Hk Hw]. apply andb_true_iff in Hk. destruct Hk as [Esl1 Hh].
  change (k_sl c1) with (is_sl c1) in Esl1. apply negb_true_iff in Hw.
  cbn [forallb] in Hcl. apply andb_true_iff in Hcl. destruct Hcl as [_ Hcl1].
  rewrite swdl_segment_spec, (ntnl_fixed R1 Hcl1) in Hw.
  assert (no_sl_head R1 = true) as Hh' by (destruct R1 as [|c2 T]; [reflexivity | exact Hh]).
  pose proof (k_file_ok_class _ Hf) as Hc. cbn [file_class_ok] in Hc. rewrite Esl1 in Hc.
  assert (fp_ok false R1 R1 = true) as Hfp.
  { destruct R1 as [|c2 T]; [exact Hc|]. cbn [no_sl_head] in Hh'. apply negb_true_iff in Hh'. rewrite Hh' in Hc. exact Hc. }
  rewrite Esl1, Hh', Hfp, Hw. cbn [andb].
  fold (has_authority_b b) in Hauth. rewrite (related_host_iff dbg shs b sb Rl) in Hauth.
  destruct (su_host sb) as [sh|]; [|discriminate Hauth]. cbn [opt_is_some andb].
  pose proof (base_path_text b sb Rl) as Ept.
  assert (has_opaque_path sb = false) as Hop by (rewrite <- (related_cbb dbg shs b sb Rl); exact Hcb).
  assert (serialize_path sb = flat (Whatwg.path_segments sb)) as EPth.
  { unfold serialize_path, Whatwg.path_segments, flat. unfold has_opaque_path in Hop. destruct (su_path sb); [discriminate Hop | reflexivity]. }
  unfold first_not_nwdl. destruct (Whatwg.path_segments sb) as [|p0 Pr] eqn:EP.
  - exfalso. unfold base_first_segment in Hfirst. rewrite Ept, EPth in Hfirst. discriminate Hfirst.
  - cbn [forallb] in HnsP. apply andb_true_iff in HnsP. destruct HnsP as [Hns0 _].
    rewrite (base_first_segment_spec dbg shs b sb p0 Pr Rl Hop EP Hns0) in Hfirst. rewrite <- is_nwdl_agree. exact Hfirst.
Qed.

End KOne.

(* known_c01 against known_c01_v3 *)
Lemma narrow_v3_new base input : k_file_narrow_v3 base input = true -> k_file_narrow base input = true.
Proof.
  unfold k_file_narrow_v3, k_file_narrow. cbv zeta.
  destruct (leading_scheme (cleaned input)) as [s|].
  - destruct base as [b|]; [|exact (fun H => H)].
    intros H. apply andb_true_iff in H. destruct H as [H H3]. apply andb_true_iff in H. destruct H as [H1 H2].
    rewrite H1, H2, H3. reflexivity.
  - destruct base as [b|]; [|discriminate].
    intros H. apply andb_true_iff in H. destruct H as [H H4]. apply andb_true_iff in H. destruct H as [H H3].
    rewrite H, H3, H4. reflexivity.
Qed.

(* the arm known_c01 takes out of class 1 of known_c01_v3: one leading separator, the host of the base kept *)
Definition k_arm_one (base : option url) (input : list N) : bool :=
  let t := cleaned input in
  match base with
  | Some b =>
      list_eqb (b_scheme b) s_file && negb (k_cbb b)
      && match leading_scheme t with
         | Some s => list_eqb s s_file && k_one_keep b (after_colon t) && k_file_ok (after_colon t)
         | None => k_one_keep b t && k_file_ok t
         end
  | None => false
  end.

Lemma narrow_split6 base input : k_file_narrow base input = true ->
  k_file_narrow_v3 base input = true \/ k_arm_one base input = true.
Proof.
  unfold k_file_narrow, k_file_narrow_v3, k_arm_one. cbv zeta.
  destruct (leading_scheme (cleaned input)) as [s|].
  - destruct base as [b|]; [|intros H; left; exact H].
    intros H. apply andb_true_iff in H. destruct H as [H H3]. apply andb_true_iff in H. destruct H as [H1 H2].
    rewrite H1, H3. cbn [andb]. rewrite !andb_true_r.
    destruct (negb (list_eqb (b_scheme b) s_file) || k_two_sl (after_colon (cleaned input))) eqn:E; [left; reflexivity|].
    right. cbn [orb] in H2. apply orb_false_iff in E. destruct E as [E _]. apply negb_false_iff in E. rewrite E.
    apply andb_true_iff in H2. destruct H2 as [H2 H4]. rewrite H2, H4. reflexivity.
  - destruct base as [b|]; [|discriminate].
    intros H. apply andb_true_iff in H. destruct H as [H H4]. apply andb_true_iff in H. destruct H as [H H3].
    rewrite H, H4. cbn [andb]. rewrite !andb_true_r.
    destruct (k_two_sl (cleaned input)) eqn:E; [left; reflexivity|]. right. cbn [orb] in H3. exact H3.
Qed.

Lemma known_split6 base input : known_c01 base input = 0 ->
  known_c01_v3 base input = 0 \/ k_arm_one base input = true.
Proof.
  unfold known_c01, known_c01_v3. cbv zeta.
  destruct (known_c01_v1 base input =? 1) eqn:E1; cbn [andb]; [|intros H; left; exact H].
  destruct (k_file_narrow base input) eqn:E; [|intros H; left; destruct (k_file_narrow_v3 base input); [reflexivity | exact H]].
  intros _. destruct (narrow_split6 base input E) as [K|K]; [left; rewrite K; reflexivity | right; exact K].
Qed.

(* whatever is outside known_c01_v3 is outside known_c01; the classes 2-4 are the same; without a base the two are equal *)
Lemma known_v3_zero base input : known_c01_v3 base input = 0 -> known_c01 base input = 0.
Proof.
  unfold known_c01_v3, known_c01. cbv zeta.
  destruct (known_c01_v1 base input =? 1) eqn:E1; cbn [andb]; [|exact (fun H => H)].
  destruct (k_file_narrow_v3 base input) eqn:E2.
  - rewrite (narrow_v3_new base input E2). reflexivity.
  - intros H. apply N.eqb_eq in E1. rewrite E1 in H. discriminate H.
Qed.

Lemma known_class_same6 base input : known_c01 base input <> 0 -> known_c01 base input = known_c01_v1 base input.
Proof.
  unfold known_c01. cbv zeta. destruct ((known_c01_v1 base input =? 1) && k_file_narrow base input).
  - intros H. exfalso. apply H. reflexivity.
  - intros _. reflexivity.
Qed.

Lemma known_nobase_same6 input : known_c01 None input = known_c01_v3 None input.
Proof.
  unfold known_c01, known_c01_v3, k_file_narrow, k_file_narrow_v3. cbv zeta.
  destruct (leading_scheme (cleaned input)); reflexivity.
Qed.

Definition one_class (sbase : option spec_url) (input : list N) : bool :=
  match sbase with Some sb => in_class_file_rel_one sb input || in_class_file_same_one sb input | None => false end.

Definition in_proved_class6 (sbase : option spec_url) (input : list N) : bool :=
  in_proved_class5 sbase input || one_class sbase input.

Lemma after_colon_clean l : forallb (fun c => negb (is_tnl c)) l = true ->
  forallb (fun c => negb (is_tnl c)) (after_colon l) = true.
Proof.
  induction l as [|c r IH]; [reflexivity|]. cbn [forallb after_colon]. intros H. apply andb_true_iff in H. destruct H as [_ H].
  destruct (c =? 58); [exact H | exact (IH H)].
Qed.

Section Cover6.
Variable dbg : bool.
Variable shs : spec_host -> list N.

Lemma arm_one_in_class base sbase input : full_rel dbg shs base sbase ->
  k_arm_one base input = true -> one_class sbase input = true.
Proof.
  intros Hb. unfold k_arm_one. cbv zeta.
  destruct base as [b|]; [|discriminate]. destruct sbase as [sb|]; cbn [full_rel] in Hb; [|contradiction].
  destruct Hb as [[Rl Hbok] _]. intros H.
  apply andb_true_iff in H. destruct H as [H H3]. apply andb_true_iff in H. destruct H as [H1 H2].
  apply negb_true_iff in H2.
  assert (forallb (fun c => negb (is_tnl c)) (cleaned input) = true) as Hcl by (unfold cleaned; apply (ntnl_clean (input_new_trim_c0 input))).
  cbn [one_class]. unfold in_class_file_rel_one, in_class_file_same_one.
  rewrite cleaned_spec_clean in *.
  destruct (spec_scheme (spec_clean input)) as [[sch R]|] eqn:Es.
  - destruct (spec_scheme_some_leading _ _ _ Es) as [El Ea]. rewrite El, Ea in H3.
    apply andb_true_iff in H3. destruct H3 as [H3 H5]. apply andb_true_iff in H3. destruct H3 as [H3 H4].
    change s_file with str_file in H3. rewrite H3. cbn [andb].
    assert (forallb (fun c => negb (is_tnl c)) R = true) as HclR by (rewrite <- Ea; apply after_colon_clean; exact Hcl).
    rewrite (k_one_keep_ok dbg shs b sb R Rl Hbok H1 H2 HclR H4 H5). apply orb_true_r.
  - rewrite (spec_scheme_none_leading _ Es) in H3.
    apply andb_true_iff in H3. destruct H3 as [H4 H5].
    rewrite (k_one_keep_ok dbg shs b sb _ Rl Hbok H1 H2 Hcl H4 H5). reflexivity.
Qed.

(* coverage: outside Known_C01 every input is in a proved class *)
Theorem all_covers6 input base sbase : full_rel dbg shs base sbase ->
  known_c01 base input = 0 -> in_proved_class6 sbase input = true.
Proof.
  intros Hb Hk. unfold in_proved_class6. destruct (known_split6 base input Hk) as [H1|Hn].
  - rewrite (all_covers5 dbg shs input base sbase Hb H1). reflexivity.
  - rewrite (arm_one_in_class base sbase input Hb Hn). apply orb_true_r.
Qed.
End Cover6.

(* host_hyp5, and for the two classes of one leading separator: the Standard's serializer gives the empty string for the empty host *)
Definition host_hyp6 (hp hpo : list N -> result host) (hd : host -> list N)
           (shp : bool -> list N -> option spec_host) (shs : spec_host -> list N)
           (sbase : option spec_url) (input : list N) : Prop :=
  host_hyp5 hp hpo hd shp shs sbase input /\ (one_class sbase input = true -> shs SEmpty = []).

Section Statements6.
Variable dbg : bool.
Variable hp hpo : list N -> result host.
Variable hd : host -> list N.
Variable shp : bool -> list N -> option spec_host.
Variable shs : spec_host -> list N.

Theorem partial_equivalence_good6 input base sbase : usv_list input ->
  full_rel dbg shs base sbase -> in_proved_class6 sbase input = true ->
  host_hyp6 hp hpo hd shp shs sbase input ->
  agree_good dbg shs (parse_url dbg hp hpo hd None base input) (spec_basic_url_parse shp input sbase)
  /\ (forall su u, spec_basic_url_parse shp input sbase = BDone su -> parse_url dbg hp hpo hd None base input = POk u ->
        full_base dbg shs u su).
Proof.
  intros Hu Hb Hc (HH5 & HHe). unfold in_proved_class6 in Hc.
  destruct (in_proved_class5 sbase input) eqn:Hc5.
  - exact (partial_equivalence_good5 dbg hp hpo hd shp shs input base sbase Hu Hb Hc5 HH5).
  - cbn [orb] in Hc. pose proof (HHe Hc) as Hse.
    destruct base as [b|]; destruct sbase as [sb|]; cbn [full_rel] in Hb; try contradiction; [|discriminate Hc].
    cbn [one_class] in Hc. destruct Hb as [[Rl Hbok] _]. apply orb_true_iff in Hc. destruct Hc as [Hc|Hc].
    + exact (class_file_rel_one dbg hp hpo hd shp shs Hse input b sb Hu Rl Hbok Hc).
    + exact (class_file_same_one dbg hp hpo hd shp shs Hse input b sb Hu Rl Hbok Hc).
Qed.

(* C01_statement for Known_C01 *)
Theorem statement_all6 input base sbase : usv_list input ->
  full_rel dbg shs base sbase -> known_c01 base input = 0 ->
  host_hyp6 hp hpo hd shp shs sbase input ->
  agree_good dbg shs (parse_url dbg hp hpo hd None base input) (spec_basic_url_parse shp input sbase)
  /\ (forall su u, spec_basic_url_parse shp input sbase = BDone su -> parse_url dbg hp hpo hd None base input = POk u ->
        full_base dbg shs u su).
Proof.
  intros Hu Hb Hk HH.
  exact (partial_equivalence_good6 input base sbase Hu Hb (all_covers6 dbg shs input base sbase Hb Hk) HH).
Qed.

End Statements6.

Theorem host_hyp6_model idna : (forall bs d, idna bs = Some d -> Forall dom_char_ok d) ->
  forall sbase input, usv_list input ->
  host_hyp6 (host_parse idna) host_parse_opaque host_display (spec_host_parser idna) spec_host_serializer sbase input.
Proof. intros Hout sbase input Hu. split; [exact (host_hyp5_model idna Hout sbase input Hu) | intros _; reflexivity]. Qed.

(* relative to the first clause of IdnaOK only (every oracle output is ASCII outside the deny list) *)
Theorem statement_all6_out dbg idna : (forall bs d, idna bs = Some d -> Forall dom_char_ok d) -> forall input base sbase,
  usv_list input -> full_rel dbg spec_host_serializer base sbase -> known_c01 base input = 0 ->
  agree_good dbg spec_host_serializer
    (parse_url dbg (host_parse idna) host_parse_opaque host_display None base input)
    (spec_basic_url_parse (spec_host_parser idna) input sbase)
  /\ (forall su u, spec_basic_url_parse (spec_host_parser idna) input sbase = BDone su ->
        parse_url dbg (host_parse idna) host_parse_opaque host_display None base input = POk u ->
        full_base dbg spec_host_serializer u su).
Proof.
  intros HO input base sbase Hu Hb Hk. apply statement_all6; try assumption.
  apply host_hyp6_model; [exact HO | exact Hu].
Qed.

Theorem statement_all6_model dbg idna : IdnaOK idna -> forall input base sbase,
  usv_list input -> full_rel dbg spec_host_serializer base sbase -> known_c01 base input = 0 ->
  agree_good dbg spec_host_serializer
    (parse_url dbg (host_parse idna) host_parse_opaque host_display None base input)
    (spec_basic_url_parse (spec_host_parser idna) input sbase)
  /\ (forall su u, spec_basic_url_parse (spec_host_parser idna) input sbase = BDone su ->
        parse_url dbg (host_parse idna) host_parse_opaque host_display None base input = POk u ->
        full_base dbg spec_host_serializer u su).
Proof. intros HI. exact (statement_all6_out dbg idna (idna_out idna HI)). Qed.

Theorem statement_instance6 dbg idna : IdnaOK idna -> forall input base sbase,
  usv_list input -> full_rel dbg spec_host_serializer base sbase -> known_c01 base input = 0 ->
  statement_shape dbg spec_host_serializer
    (parse_url dbg (host_parse idna) host_parse_opaque host_display None base input)
    (spec_basic_url_parse (spec_host_parser idna) input sbase).
Proof.
  intros HI input base sbase Hu Hb Hk. apply agree_good_shape.
  exact (proj1 (statement_all6_model dbg idna HI input base sbase Hu Hb Hk)).
Qed.

Theorem statement_all6_model_utf8 dbg idna : IdnaOK idna -> forall input base sbase,
  usv_list input -> full_rel dbg spec_host_serializer base sbase -> known_c01 base input = 0 ->
  agree_good dbg spec_host_serializer
    (parse_url dbg (host_parse idna) host_parse_opaque host_display (Some utf8_encode) base input)
    (spec_basic_url_parse (spec_host_parser idna) input sbase).
Proof.
  intros HI input base sbase Hu Hb Hk. rewrite parse_url_utf8_override.
  exact (proj1 (statement_all6_model dbg idna HI input base sbase Hu Hb Hk)).
Qed.

(* class 1 of known_c01_v3 against class 1 of known_c01, with the parse result of file://h/tmp/x as base:
   in the first only (known_c01_v3 = 1, known_c01 = 0; the sides agree by the theorem):  /y ;  \a/../b?q#f ;  /./C:/z ;
     file:/y ;
   in both:  x (path-relative: proved beside, C01_EqFileBase.v) ;  /C:/y  and  file:C:/y (F-C01-1) ;
   against the parse result of file:///C:/dir/f  the reference  /y  is in both (drive letter of the base carried
   over: proved beside) *)
Definition f3_1 : list N := [47;121].
Definition f3_2 : list N := [92;97;47;46;46;47;98;63;113;35;102].
Definition f3_3 : list N := [47;46;47;67;58;47;122].
Definition f3_4 : list N := [102;105;108;101;58;47;121].

Theorem known_file_narrowed3 :
  match parse_url true (host_parse id_idna) host_parse_opaque host_display None None file_base_text,
        parse_url true (host_parse id_idna) host_parse_opaque host_display None None [102;105;108;101;58;47;47;47;67;58;47;100;105;114;47;102] with
  | POk bf, POk bc =>
      let left i := known_c01_v3 (Some bf) i = 1 /\ known_c01 (Some bf) i = 0 in
      left f3_1 /\ left f3_2 /\ left f3_3 /\ left f3_4
      /\ known_c01 (Some bf) [120] = 1 /\ known_c01 (Some bf) [47;67;58;47;121] = 1 /\ known_c01 (Some bf) [102;105;108;101;58;67;58;47;121] = 1
      /\ known_c01 (Some bc) f3_1 = 1
      /\ known_c01 (Some bf) f2_3 = 0 /\ known_c01 (Some bf) [35; 102] = 0 /\ known_c01 (Some bf) [] = 0
  | _, _ => False
  end.
Proof. vm_compute. repeat split. Qed.

(* non-vacuity of statement_all6_model on inputs that only the predicate of this file admits *)
Example statement_all6_nonvacuous :
  let idna := id_idna in
  let P base i := parse_url true (host_parse idna) host_parse_opaque host_display None base i in
  let S sbase i := spec_basic_url_parse (spec_host_parser idna) i sbase in
  match P None file_base_text, S None file_base_text with
  | POk b, BDone sb =>
      let ok i := known_c01 (Some b) i = 0 /\ known_c01_v3 (Some b) i = 1
                  /\ in_proved_class5 (Some sb) i = false /\ in_proved_class6 (Some sb) i = true
                  /\ match P (Some b) i, S (Some sb) i with
                     | POk u, BDone su => api_of_model true u = Some (spec_api_list spec_host_serializer su)
                     | _, _ => False end in
      ok f3_1 /\ ok f3_2 /\ ok f3_3 /\ ok f3_4
  | _, _ => False
  end.
Proof. vm_compute. repeat split. Qed.
