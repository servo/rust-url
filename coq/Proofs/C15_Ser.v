(* Proofs/C15_Ser.v - the Serializer: string-level effect of every operation, the for_suffix theorem,
   round trip, alphabet, and the exact set of panics. *)
From RU Require Import Base.Prelude Base.Utf8 Base.Utf8Facts Base.Outcome_c15 Gen.Tables
  Model.FormUrlencoded
  Proofs.C15_Parse Proofs.C15_Bser.

Definition nlen (l : list N) : N := N.of_nat (length l).
(* the part of a String before / from start_position *)
Definition pre (start : N) (s : list N) : list N := firstn (N.to_nat start) s.
Definition suf (start : N) (s : list N) : list N := skipn (N.to_nat start) s.

Lemma suf_app start s x : start <= nlen s -> suf start (s ++ x) = suf start s ++ x.
Proof.
  unfold suf, nlen. intros H. rewrite skipn_app.
  replace (N.to_nat start - length s)%nat with O by lia. reflexivity.
Qed.
Lemma pre_app start s x : start <= nlen s -> pre start (s ++ x) = pre start s.
Proof.
  unfold pre, nlen. intros H. rewrite firstn_app.
  replace (N.to_nat start - length s)%nat with O by lia. cbn [firstn]. apply app_nil_r.
Qed.
Lemma suf_nil start s : nlen s <= start -> suf start s = [].
Proof. unfold suf, nlen. intros H. apply skipn_all2. lia. Qed.
Lemma pre_suf start s : pre start s ++ suf start s = s.
Proof. apply firstn_skipn. Qed.
Lemma nlen_app a b : nlen (a ++ b) = nlen a + nlen b.
Proof. unfold nlen. rewrite app_length. lia. Qed.
Lemma suf_pre_len start s : start <= nlen s -> nlen (pre start s) = start.
Proof. unfold pre, nlen. intros H. rewrite firstn_length. lia. Qed.

(* what the parser reads back for a name or value written under an encoding *)
Definition dec_of (enc : encoding_override_t) (s : list N) : list N := utf8_lossy (fu_encode enc s).

(* an override is acceptable when it yields bytes (Cow<[u8]>) on every string *)
Definition enc_ok (enc : encoding_override_t) : Prop :=
  match enc with Some f => forall s, usv_list s -> bytes (f s) | None => True end.

Lemma enc_ok_bytes enc s : enc_ok enc -> usv_list s -> bytes (fu_encode enc s).
Proof.
  destruct enc as [f|]; cbn [enc_ok fu_encode]; intros H Hs; [exact (H s Hs) | exact (utf8_encode_bytes s Hs)].
Qed.

Lemma dec_of_default s : usv_list s -> dec_of None s = s.
Proof. intros H. unfold dec_of. cbn [fu_encode]. apply utf8_lossy_encode. exact H. Qed.

(* the text written for one name or value *)
Definition E (enc : encoding_override_t) (s : list N) : list N := bser (fu_encode enc s).

(* the free functions append_encoded, append_pair, append_key_only and the two extend loops: what they append to the String *)
Theorem append_encoded_total s str enc :
  append_encoded s str enc = Ok (str ++ bser_t (fu_encode enc s)).
Proof.
  unfold append_encoded. destruct (bser_chunks_ok (fu_encode enc s)) as (cs & H1 & H2 & _).
  rewrite H1. cbn [omap]. rewrite extend_chunks_concat, H2. reflexivity.
Qed.

Lemma append_encoded_ok s str enc : bytes (fu_encode enc s) ->
  append_encoded s str enc = Ok (str ++ E enc s).
Proof. intros H. rewrite append_encoded_total, bser_t_is_bser by exact H. reflexivity. Qed.

Definition sep_of (str : list N) (start : N) : list N := if start <? nlen str then [38] else [].

Lemma append_separator_eq str start : append_separator_if_needed str start = str ++ sep_of str start.
Proof.
  unfold append_separator_if_needed, sep_of, nlen. change T_FORM_PUSH_SEP with 38.
  destruct (start <? N.of_nat (length str)); [reflexivity | rewrite app_nil_r; reflexivity].
Qed.

Lemma append_pair_fn_eq str start enc n v : bytes (fu_encode enc n) -> bytes (fu_encode enc v) ->
  append_pair_fn str start enc n v = Ok (str ++ (sep_of str start ++ E enc n ++ 61 :: E enc v)).
Proof.
  intros Hn Hv. unfold append_pair_fn. rewrite append_separator_eq, append_encoded_ok by exact Hn.
  cbn [obind]. rewrite append_encoded_ok by exact Hv. change T_FORM_PUSH_EQ with 61.
  f_equal. rewrite <- !app_assoc. reflexivity.
Qed.

Lemma append_key_only_fn_eq str start enc k : bytes (fu_encode enc k) ->
  append_key_only_fn str start enc k = Ok (str ++ (sep_of str start ++ E enc k)).
Proof.
  intros Hk. unfold append_key_only_fn. rewrite append_separator_eq, append_encoded_ok by exact Hk.
  rewrite <- app_assoc. reflexivity.
Qed.

(* the append functions never panic and never run out of fuel, whatever the arguments *)
Lemma append_pair_fn_total str start enc n v : exists s', append_pair_fn str start enc n v = Ok s'.
Proof.
  unfold append_pair_fn. rewrite append_encoded_total. cbn [obind]. rewrite append_encoded_total. eauto.
Qed.
Lemma append_key_only_fn_total str start enc k : exists s', append_key_only_fn str start enc k = Ok s'.
Proof. unfold append_key_only_fn. rewrite append_encoded_total. eauto. Qed.
Lemma extend_pairs_loop_total l : forall str start enc, exists s', extend_pairs_loop str start enc l = Ok s'.
Proof.
  induction l as [|[k v] r IH]; intros str start enc; cbn [extend_pairs_loop]; [eauto|].
  destruct (append_pair_fn_total str start enc k v) as [s1 H1]. rewrite H1. cbn [obind]. apply IH.
Qed.
Lemma extend_keys_loop_total l : forall str start enc, exists s', extend_keys_loop str start enc l = Ok s'.
Proof.
  induction l as [|k r IH]; intros str start enc; cbn [extend_keys_loop]; [eauto|].
  destruct (append_key_only_fn_total str start enc k) as [s1 H1]. rewrite H1. cbn [obind]. apply IH.
Qed.

(* the pairs the parser reads back for one append_pair / append_key_only under an encoding *)
Definition pairs := list (list N * list N).

Definition eff_pair (enc : encoding_override_t) (n v : list N) : pairs := [(dec_of enc n, dec_of enc v)].
Definition eff_key (enc : encoding_override_t) (k : list N) : pairs :=
  if is_empty (fu_encode enc k) then [] else [(dec_of enc k, [])].

Lemma E_alpha enc s : bytes (fu_encode enc s) -> Forall (fun c => val_alpha c = true) (E enc s).
Proof. apply bser_alpha. Qed.

Lemma forall_val_form l : Forall (fun c => val_alpha c = true) l -> Forall (fun c => form_alpha c = true) l.
Proof. intros H. eapply Forall_impl; [|exact H]. exact val_alpha_form. Qed.

Lemma pair_text_parse enc n v : bytes (fu_encode enc n) -> bytes (fu_encode enc v) ->
  parse_spec (E enc n ++ 61 :: E enc v) = eff_pair enc n v.
Proof.
  intros Hn Hv. rewrite parse_spec_piece.
  - unfold pair_of. rewrite splitn2_app by (apply bser_no_eq; exact Hn).
    cbn [unwrap_or_empty]. unfold E. rewrite !fdec_bser by assumption. reflexivity.
  - destruct (E enc n); discriminate.
  - apply Forall_app. split; [apply bser_no_amp; exact Hn|].
    constructor; [lia | apply bser_no_amp; exact Hv].
Qed.

Lemma key_text_parse enc k : bytes (fu_encode enc k) -> parse_spec (E enc k) = eff_key enc k.
Proof.
  unfold eff_key, E, dec_of. intros Hk. destruct (fu_encode enc k) as [|b r]; [reflexivity|].
  cbn [is_empty]. rewrite parse_spec_piece.
  - unfold pair_of. rewrite splitn2_no_delim by (apply bser_no_eq; exact Hk).
    cbn [unwrap_or_empty]. rewrite fdec_bser by exact Hk. rewrite fdec_nil. reflexivity.
  - intros Hnil. apply (proj1 (bser_nil_iff _)) in Hnil. discriminate.
  - apply bser_no_amp. exact Hk.
Qed.

(* appending "sep? ++ y" after start_position appends parse_spec y to what is read back *)
Lemma sep_parse str start y : start <= nlen str ->
  parse_spec (suf start (str ++ (sep_of str start ++ y))) = parse_spec (suf start str) ++ parse_spec y.
Proof.
  intros Hs. rewrite suf_app by exact Hs. unfold sep_of.
  destruct (start <? nlen str) eqn:El.
  - cbn [app]. apply parse_spec_app_amp.
  - rewrite suf_nil by lia. reflexivity.
Qed.

(* string s grows into s' by text over the alphabet, adding delta to what is read back after start *)
Definition grows (start : N) (s s' : list N) (delta : pairs) : Prop :=
  exists x, s' = s ++ x /\ Forall (fun c => form_alpha c = true) x
            /\ parse_spec (suf start s') = parse_spec (suf start s) ++ delta.

Lemma grows_refl start s : grows start s s [].
Proof. exists []. rewrite !app_nil_r. repeat split. constructor. Qed.

Lemma grows_trans start a b c d1 d2 : grows start a b d1 -> grows start b c d2 -> grows start a c (d1 ++ d2).
Proof.
  intros (x & -> & Hx & Hp) (y & -> & Hy & Hq). exists (x ++ y). rewrite app_assoc. split; [reflexivity|].
  split; [apply Forall_app; tauto|]. rewrite Hq, Hp, app_assoc. reflexivity.
Qed.

Lemma grows_len start a b d : grows start a b d -> start <= nlen a -> start <= nlen b.
Proof. intros (x & -> & _) H. rewrite nlen_app. lia. Qed.

Lemma sep_alpha str start : Forall (fun c => form_alpha c = true) (sep_of str start).
Proof. unfold sep_of. destruct (start <? nlen str); repeat constructor. Qed.

Lemma append_pair_grows str start enc n v :
  enc_ok enc -> usv_list n -> usv_list v -> start <= nlen str ->
  exists s', append_pair_fn str start enc n v = Ok s' /\ grows start str s' (eff_pair enc n v).
Proof.
  intros He Hn Hv Hs. pose proof (enc_ok_bytes enc n He Hn) as Bn. pose proof (enc_ok_bytes enc v He Hv) as Bv.
  eexists. split; [apply append_pair_fn_eq; assumption|].
  eexists. split; [reflexivity|]. split.
  - apply Forall_app. split; [apply sep_alpha|]. apply Forall_app. split; [apply forall_val_form, E_alpha; exact Bn|].
    constructor; [reflexivity | apply forall_val_form, E_alpha; exact Bv].
  - rewrite sep_parse by exact Hs. rewrite pair_text_parse by assumption. reflexivity.
Qed.

Lemma append_key_grows str start enc k :
  enc_ok enc -> usv_list k -> start <= nlen str ->
  exists s', append_key_only_fn str start enc k = Ok s' /\ grows start str s' (eff_key enc k).
Proof.
  intros He Hk Hs. pose proof (enc_ok_bytes enc k He Hk) as Bk.
  eexists. split; [apply append_key_only_fn_eq; assumption|].
  eexists. split; [reflexivity|]. split.
  - apply Forall_app. split; [apply sep_alpha | apply forall_val_form, E_alpha; exact Bk].
  - rewrite sep_parse by exact Hs. rewrite key_text_parse by assumption. reflexivity.
Qed.

Lemma extend_pairs_grows enc start l : enc_ok enc ->
  Forall (fun p => usv_list (fst p) /\ usv_list (snd p)) l -> forall str, start <= nlen str ->
  exists s', extend_pairs_loop str start enc l = Ok s'
             /\ grows start str s' (flat_map (fun p => eff_pair enc (fst p) (snd p)) l).
Proof.
  intros He. induction l as [|[k v] r IH]; intros Hl str Hs; cbn [extend_pairs_loop flat_map].
  - eexists. split; [reflexivity | apply grows_refl].
  - inversion Hl as [|? ? [Hk Hv] Hr]; subst. cbn [fst snd] in *.
    destruct (append_pair_grows str start enc k v He Hk Hv Hs) as (s1 & H1 & G1). rewrite H1. cbn [obind].
    destruct (IH Hr s1 (grows_len _ _ _ _ G1 Hs)) as (s2 & H2 & G2). exists s2. split; [exact H2|].
    exact (grows_trans _ _ _ _ _ _ G1 G2).
Qed.

Lemma extend_keys_grows enc start l : enc_ok enc -> Forall usv_list l -> forall str, start <= nlen str ->
  exists s', extend_keys_loop str start enc l = Ok s' /\ grows start str s' (flat_map (eff_key enc) l).
Proof.
  intros He. induction l as [|k r IH]; intros Hl str Hs; cbn [extend_keys_loop flat_map].
  - eexists. split; [reflexivity | apply grows_refl].
  - inversion Hl as [|? ? Hk Hr]; subst.
    destruct (append_key_grows str start enc k He Hk Hs) as (s1 & H1 & G1). rewrite H1. cbn [obind].
    destruct (IH Hr s1 (grows_len _ _ _ _ G1 Hs)) as (s2 & H2 & G2). exists s2. split; [exact H2|].
    exact (grows_trans _ _ _ _ _ _ G1 G2).
Qed.

(* String::truncate(start_position), the body of clear(): for start_position <= len it succeeds on a char
   boundary and panics off one; appending text over the alphabet (ASCII) keeps start_position on a boundary *)
Lemma boundary_at_end s : is_char_boundary s (nlen s) = true.
Proof.
  unfold is_char_boundary, nlen. destruct (N.of_nat (length s) =? 0) eqn:E; [reflexivity|].
  rewrite Nat2N.id. replace (nth_error s (length s)) with (@None N).
  - apply N.eqb_refl.
  - symmetry. apply nth_error_None. lia.
Qed.

Lemma boundary_grows start a x : start <= nlen a -> Forall (fun c => form_alpha c = true) x ->
  is_char_boundary a start = true -> is_char_boundary (a ++ x) start = true.
Proof.
  intros Hs Hx Hb. unfold is_char_boundary in *. destruct (start =? 0) eqn:E0; [reflexivity|].
  destruct (N.ltb_spec start (nlen a)) as [Hlt|Hge].
  - unfold nlen in Hlt. rewrite nth_error_app1 by lia.
    destruct (nth_error a (N.to_nat start)) eqn:En; [exact Hb|].
    apply nth_error_None in En. lia.
  - assert (start = nlen a) as -> by lia. unfold nlen. rewrite Nat2N.id.
    rewrite nth_error_app2 by lia. replace (length a - length a)%nat with O by lia.
    destruct x as [|c r]; cbn [nth_error].
    + rewrite app_nil_r. apply N.eqb_refl.
    + inversion Hx as [|? ? Hc _]; subst. apply form_alpha_ascii in Hc. lia.
Qed.

Lemma truncate_ok s start : start <= nlen s -> is_char_boundary s start = true ->
  string_truncate s start = Ok (pre start s).
Proof.
  intros Hs Hb. unfold string_truncate. fold (nlen s). replace (start <=? nlen s) with true by lia.
  rewrite Hb. reflexivity.
Qed.

Lemma truncate_panic s start : start <= nlen s -> is_char_boundary s start = false ->
  string_truncate s start = Panic T_FORM_SITE_CLEAR_TRUNCATE.
Proof.
  intros Hs Hb. unfold string_truncate. fold (nlen s). replace (start <=? nlen s) with true by lia.
  rewrite Hb. reflexivity.
Qed.

Definition has_clear (ops : list ser_op) : bool :=
  existsb (fun op => match op with OpClear => true | _ => false end) ops.

Definition op_ok (op : ser_op) : Prop :=
  match op with
  | OpAppendPair n v => usv_list n /\ usv_list v
  | OpAppendKeyOnly k => usv_list k
  | OpExtendPairs l => Forall (fun p => usv_list (fst p) /\ usv_list (snd p)) l
  | OpExtendKeysOnly l => Forall usv_list l
  | OpClear => True
  | OpEncodingOverride o => enc_ok o
  end.

(* the (encoding, pairs read back after start_position) state and the effect of each operation on it *)
Definition op_effect (st : encoding_override_t * pairs) (op : ser_op) : encoding_override_t * pairs :=
  let (enc, ps) := st in
  match op with
  | OpAppendPair n v => (enc, ps ++ eff_pair enc n v)
  | OpAppendKeyOnly k => (enc, ps ++ eff_key enc k)
  | OpExtendPairs l => (enc, ps ++ flat_map (fun p => eff_pair enc (fst p) (snd p)) l)
  | OpExtendKeysOnly l => (enc, ps ++ flat_map (eff_key enc) l)
  | OpClear => (enc, [])
  | OpEncodingOverride o => (o, ps)
  end.
Definition ops_effect (st : encoding_override_t * pairs) (ops : list ser_op) : encoding_override_t * pairs :=
  fold_left op_effect ops st.

(* one operation on the String the target hands out *)
Definition str_step (start : N) (enc : encoding_override_t) (str : list N) (op : ser_op)
  : outcome (list N * encoding_override_t) :=
  match op with
  | OpAppendPair n v => omap (fun s => (s, enc)) (append_pair_fn str start enc n v)
  | OpAppendKeyOnly k => omap (fun s => (s, enc)) (append_key_only_fn str start enc k)
  | OpExtendPairs l => omap (fun s => (s, enc)) (extend_pairs_loop str start enc l)
  | OpExtendKeysOnly l => omap (fun s => (s, enc)) (extend_keys_loop str start enc l)
  | OpClear => omap (fun s => (s, enc)) (string_truncate str start)
  | OpEncodingOverride o => Ok (str, o)
  end.

Fixpoint str_run (start : N) (enc : encoding_override_t) (str : list N) (ops : list ser_op)
  : outcome (list N * encoding_override_t) :=
  match ops with
  | [] => Ok (str, enc)
  | op :: r => obind (str_step start enc str op) (fun se => str_run start (snd se) (fst se) r)
  end.

Lemma str_step_ok start enc str op : enc_ok enc -> op_ok op -> start <= nlen str ->
  (is_char_boundary str start = true \/ op <> OpClear) ->
  exists str' enc', str_step start enc str op = Ok (str', enc')
    /\ enc_ok enc' /\ start <= nlen str' /\ pre start str' = pre start str
    /\ (enc', parse_spec (suf start str')) = op_effect (enc, parse_spec (suf start str)) op
    /\ (forall P : N -> Prop, (forall c, form_alpha c = true -> P c) -> Forall P (suf start str) -> Forall P (suf start str'))
    /\ (is_char_boundary str start = true -> is_char_boundary str' start = true).
Proof.
  intros He Ho Hs Hb.
  (* the four appending operations: the String grows by text that reads back as the operation's effect *)
  assert (G : forall r d, (exists s', r = Ok s' /\ grows start str s' d) ->
     exists str' enc', omap (fun s => (s, enc)) r = Ok (str', enc')
     /\ enc_ok enc' /\ start <= nlen str' /\ pre start str' = pre start str
     /\ (enc', parse_spec (suf start str')) = (enc, parse_spec (suf start str) ++ d)
     /\ (forall P : N -> Prop, (forall c, form_alpha c = true -> P c) -> Forall P (suf start str) -> Forall P (suf start str'))
     /\ (is_char_boundary str start = true -> is_char_boundary str' start = true)).
  { intros r d (s' & -> & Hg). exists s', enc. pose proof (grows_len _ _ _ _ Hg Hs) as Hl.
    destruct Hg as (x & -> & Hx & Hp).
    split; [reflexivity|]. split; [exact He|]. split; [exact Hl|]. split; [apply pre_app; exact Hs|].
    split; [rewrite Hp; reflexivity|]. split.
    - intros P HP Ha. rewrite suf_app by exact Hs. apply Forall_app. split; [exact Ha|].
      eapply Forall_impl; [|exact Hx]. exact HP.
    - apply boundary_grows; assumption. }
  destruct op as [n v|k|l|l| |o]; cbn [str_step op_effect op_ok] in *.
  - destruct Ho as [Hn Hv]. apply G, append_pair_grows; assumption.
  - apply G, append_key_grows; assumption.
  - apply G, extend_pairs_grows; assumption.
  - apply G, extend_keys_grows; assumption.
  - destruct Hb as [Hb|Hb]; [|congruence].
    rewrite truncate_ok by assumption. cbn [omap]. exists (pre start str), enc.
    assert (Hl : nlen (pre start str) = start) by (apply suf_pre_len; exact Hs).
    split; [reflexivity|]. split; [exact He|]. split; [lia|]. split.
    { unfold pre. rewrite firstn_firstn. f_equal. lia. }
    split; [rewrite suf_nil by lia; reflexivity|]. split.
    { intros P _ _. rewrite suf_nil by lia. constructor. }
    intros _. rewrite <- Hl at 2. apply boundary_at_end.
  - exists str, o. repeat split; try assumption; tauto.
Qed.

Theorem str_run_ok ops : forall start enc str, Forall op_ok ops -> enc_ok enc -> start <= nlen str ->
  (is_char_boundary str start = true \/ has_clear ops = false) ->
  exists str' enc', str_run start enc str ops = Ok (str', enc')
    /\ start <= nlen str' /\ pre start str' = pre start str
    /\ (enc', parse_spec (suf start str')) = ops_effect (enc, parse_spec (suf start str)) ops
    /\ (forall P : N -> Prop, (forall c, form_alpha c = true -> P c) -> Forall P (suf start str) -> Forall P (suf start str')).
Proof.
  induction ops as [|op r IH]; intros start enc str Hops He Hs Hb.
  - exists str, enc. cbn [str_run ops_effect fold_left]. repeat split; try assumption. tauto.
  - inversion Hops as [|? ? Ho Hr]; subst. cbn [str_run].
    assert (Hb1 : is_char_boundary str start = true \/ op <> OpClear).
    { destruct Hb as [Hb|Hb]; [left; exact Hb|]. right. intros ->. cbn in Hb. discriminate. }
    destruct (str_step_ok start enc str op He Ho Hs Hb1) as (s1 & e1 & H1 & He1 & Hs1 & Hp1 & Hq1 & Ha1 & Hb2).
    rewrite H1. cbn [obind fst snd].
    assert (Hb3 : is_char_boundary s1 start = true \/ has_clear r = false).
    { destruct Hb as [Hb|Hb]; [left; exact (Hb2 Hb)|]. right. cbn [has_clear existsb] in Hb.
      apply orb_false_iff in Hb. tauto. }
    destruct (IH start e1 s1 Hr He1 Hs1 Hb3) as (s2 & e2 & H2 & Hs2 & Hp2 & Hq2 & Ha2).
    exists s2, e2. split; [exact H2|]. split; [exact Hs2|]. split; [congruence|]. split.
    + unfold ops_effect in *. cbn [fold_left]. rewrite <- Hq1. exact Hq2.
    + intros P HP Ha. exact (Ha2 P HP (Ha1 P HP Ha)).
Qed.

(* the same for Serializer<T> over any Target *)
Section Generic.
  Variables (T F : Type) (get : T -> list N) (set : T -> list N -> T) (fin : T -> F).
  (* as_mut_string hands out the same String every time: a lens *)
  Hypothesis get_set : forall t s, get (set t s) = s.
  Hypothesis set_set : forall t a b, set (set t a) b = set t b.
  Hypothesis set_get : forall t, set t (get t) = t.

  Definition lift (t0 : T) (start : N) (o : outcome (list N * encoding_override_t)) : outcome (serializer T) :=
    omap (fun se => mk_ser (Some (set t0 (fst se))) start (snd se)) o.

  Lemma ser_step_lift t0 start enc str op :
    ser_step T get set (mk_ser (Some (set t0 str)) start enc) op = lift t0 start (str_step start enc str op).
  Proof.
    unfold lift. destruct op as [n v|k|l|l| |o]; cbn [ser_step str_step].
    - unfold ser_append_pair, string_of, with_string. cbn [ser_target ser_start ser_encoding obind].
      rewrite get_set. destruct (append_pair_fn str start enc n v); cbn [obind omap fst snd]; [rewrite set_set|..]; reflexivity.
    - unfold ser_append_key_only, string_of, with_string. cbn [ser_target ser_start ser_encoding obind].
      rewrite get_set. destruct (append_key_only_fn str start enc k); cbn [obind omap fst snd]; [rewrite set_set|..]; reflexivity.
    - unfold ser_extend_pairs, string_of, with_string. cbn [ser_target ser_start ser_encoding obind].
      rewrite get_set. destruct (extend_pairs_loop str start enc l); cbn [obind omap fst snd]; [rewrite set_set|..]; reflexivity.
    - unfold ser_extend_keys_only, string_of, with_string. cbn [ser_target ser_start ser_encoding obind].
      rewrite get_set. destruct (extend_keys_loop str start enc l); cbn [obind omap fst snd]; [rewrite set_set|..]; reflexivity.
    - unfold ser_clear, string_of, with_string. cbn [ser_target ser_start ser_encoding obind].
      rewrite get_set. destruct (string_truncate str start); cbn [obind omap fst snd]; [rewrite set_set|..]; reflexivity.
    - reflexivity.
  Qed.

  Lemma ser_run_lift ops : forall t0 start enc str,
    ser_run T get set (mk_ser (Some (set t0 str)) start enc) ops = lift t0 start (str_run start enc str ops).
  Proof.
    induction ops as [|op r IH]; intros t0 start enc str; cbn [ser_run str_run]; [reflexivity|].
    rewrite ser_step_lift. unfold lift at 1.
    destruct (str_step start enc str op) as [[s1 e1]| |]; cbn [omap obind fst snd]; [apply IH | reflexivity..].
  Qed.

  (* documented panic 1: for_suffix beyond the end of the target, and nothing else *)
  Theorem for_suffix_outcome t start :
    (nlen (get t) < start -> ser_for_suffix T get t start = Panic T_FORM_SITE_FOR_SUFFIX)
    /\ (start <= nlen (get t) -> ser_for_suffix T get t start = Ok (mk_ser (Some t) start None)).
  Proof using T get.
    clear get_set set_set set_get set fin F.
    unfold ser_for_suffix, nlen. split; intros H.
    - replace (N.of_nat (length (get t)) <? start) with true by lia. reflexivity.
    - replace (N.of_nat (length (get t)) <? start) with false by lia. reflexivity.
  Qed.

  (* documented panic 2: finish takes the target; a second finish and every String-touching operation
     afterwards panic (encoding_override alone does not touch the target) *)
  Theorem finish_outcome (s : serializer T) :
    match ser_target s with
    | Some t => ser_finish T F fin s = Ok (fin t, mk_ser None (ser_start s) (ser_encoding s))
    | None => ser_finish T F fin s = Panic T_FORM_SITE_FINISH
    end.
  Proof using T F fin. unfold ser_finish. destruct (ser_target s); reflexivity. Qed.

  Theorem after_finish (s : serializer T) f s' : ser_finish T F fin s = Ok (f, s') ->
    ser_finish T F fin s' = Panic T_FORM_SITE_FINISH
    /\ forall op, ser_step T get set s' op =
                  match op with
                  | OpEncodingOverride o => Ok (mk_ser None (ser_start s') o)
                  | _ => Panic T_FORM_SITE_STRING
                  end.
  Proof using T F get set fin.
    unfold ser_finish. destruct (ser_target s) as [t|]; [|discriminate]. intros H. inversion H; subst. clear H.
    split; [reflexivity|]. intros op. destruct op; reflexivity.
  Qed.

  (* the complete list of ways one operation can fail *)
  Theorem ser_step_outcome (s : serializer T) op :
    match ser_step T get set s op with
    | Ok _ => True
    | OutOfFuel => False
    | Panic x =>
        (ser_target s = None /\ x = T_FORM_SITE_STRING)
        \/ (exists t, ser_target s = Some t /\ op = OpClear /\ x = T_FORM_SITE_CLEAR_TRUNCATE
                      /\ ser_start s <= nlen (get t) /\ is_char_boundary (get t) (ser_start s) = false)
    end.
  Proof using T get set.
    clear get_set set_set set_get fin F.
    destruct s as [[t|] start enc].
    2:{ destruct op; cbn; auto. }
    destruct op as [n v|k|l|l| |o]; cbn [ser_step].
    - unfold ser_append_pair, string_of. cbn [ser_target ser_start ser_encoding obind].
      destruct (append_pair_fn_total (get t) start enc n v) as [s' ->]. exact I.
    - unfold ser_append_key_only, string_of. cbn [ser_target ser_start ser_encoding obind].
      destruct (append_key_only_fn_total (get t) start enc k) as [s' ->]. exact I.
    - unfold ser_extend_pairs, string_of. cbn [ser_target ser_start ser_encoding obind].
      destruct (extend_pairs_loop_total l (get t) start enc) as [s' ->]. exact I.
    - unfold ser_extend_keys_only, string_of. cbn [ser_target ser_start ser_encoding obind].
      destruct (extend_keys_loop_total l (get t) start enc) as [s' ->]. exact I.
    - unfold ser_clear, string_of. cbn [ser_target ser_start ser_encoding obind].
      unfold string_truncate. fold (nlen (get t)).
      destruct (start <=? nlen (get t)) eqn:El; [|exact I].
      destruct (is_char_boundary (get t) start) eqn:Eb; [exact I|]. cbn [obind].
      right. exists t. repeat split; try reflexivity; [lia | exact Eb].
    - exact I.
  Qed.

  (* for_suffix(target, start) . ops . finish() ; the text after start_position keeps every byte property
     P that the alphabet has (e.g. "is not '#'") *)
  Theorem session_ok_P t0 start ops :
    Forall op_ok ops -> start <= nlen (get t0) ->
    (is_char_boundary (get t0) start = true \/ has_clear ops = false) ->
    exists str', ser_session T F get set fin t0 start ops = Ok (fin (set t0 str'))
      /\ start <= nlen str' /\ pre start str' = pre start (get t0)
      /\ parse (suf start str') = Some (snd (ops_effect (None, parse_spec (suf start (get t0))) ops))
      /\ (forall P : N -> Prop, (forall c, form_alpha c = true -> P c) ->
          Forall P (suf start (get t0)) -> Forall P (suf start str')).
  Proof.
    intros Hops Hs Hb. unfold ser_session.
    rewrite (proj2 (for_suffix_outcome t0 start) Hs). cbn [obind].
    replace (mk_ser (Some t0) start None) with (mk_ser (Some (set t0 (get t0))) start None)
      by (rewrite set_get; reflexivity).
    rewrite ser_run_lift.
    destruct (str_run_ok ops start None (get t0) Hops I Hs Hb) as (s' & e' & H1 & H2 & H3 & H4 & H5).
    rewrite H1. unfold lift. cbn [omap obind fst snd ser_finish ser_target].
    exists s'. split; [reflexivity|]. split; [exact H2|]. split; [exact H3|]. split; [|exact H5].
    rewrite parse_is_spec. f_equal. apply (f_equal snd) in H4. cbn [snd] in H4. exact H4.
  Qed.

  Theorem session_ok t0 start ops :
    Forall op_ok ops -> start <= nlen (get t0) ->
    (is_char_boundary (get t0) start = true \/ has_clear ops = false) ->
    exists str', ser_session T F get set fin t0 start ops = Ok (fin (set t0 str'))
      /\ start <= nlen str' /\ pre start str' = pre start (get t0)
      /\ parse (suf start str') = Some (snd (ops_effect (None, parse_spec (suf start (get t0))) ops))
      /\ (Forall (fun c => form_alpha c = true) (suf start (get t0)) ->
          Forall (fun c => form_alpha c = true) (suf start str')).
  Proof.
    intros Hops Hs Hb. destruct (session_ok_P t0 start ops Hops Hs Hb) as (s' & H1 & H2 & H3 & H4 & H5).
    exists s'. repeat split; try assumption. apply H5. intros c Hc; exact Hc.
  Qed.
End Generic.
