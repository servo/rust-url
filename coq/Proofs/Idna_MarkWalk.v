(* Proofs/Idna_MarkWalk.v - the first output walk of the marking run: with had_errors set it never returns
   Passthrough outside the class Known_C11 (some label with U+FFFD has an entry that is not MixedCaseAscii, and such a
   label forces a write: stays_has, then walk1_spec); hence C11_same_verdict_statement for the adapters with
   map_normalize A [] = [] (same_verdict_full, c11_same_verdict_full).  That premise cannot be dropped
   (c11_same_verdict_unconditional_refuted). *)
From RU Require Import Base.Prelude Base.Utf8 Base.U32_c13 Gen.Tables Model.Punycode Model.Uts46
  Proofs.Idna_Sim Proofs.Idna_Api Proofs.Idna_Known Proofs.Idna_Hyp Proofs.Idna_Redisc
  Proofs.Idna_C10_Deny Proofs.Idna_C10_Prefix Proofs.Idna_C10_Inner Proofs.Idna_Mark Proofs.Idna_SimRun Proofs.Idna_WalkFun.

Lemma classify_unicode_nofffd label : classify_for_punycode label = PcUnicode -> fffd label = false.
Proof.
  rewrite classify_spec. unfold fffd. destruct (is_ascii_l label), (existsb is_fffd label); intros H; try discriminate H; reflexivity.
Qed.
Lemma uni1_fffd p tld bd label : fffd label = true -> uni1 false p tld bd label = true.
Proof.
  intros Hf. unfold uni1, pp1. rewrite classify_spec. unfold fffd in Hf. rewrite Hf.
  destruct (is_ascii_l label); reflexivity.
Qed.
(* a label with U+FFFD whose entry is not MixedCaseAscii forces a write *)
Lemma stays_has p tld bd labels aps : pre_ok labels aps -> efffd labels = true ->
  stays (uni1 false p tld bd) labels aps = false.
Proof.
  induction 1 as [|label ip labels aps Hp _ IH]; intros He; [discriminate He|]. cbn [stays].
  cbn [efffd existsb] in He. destruct (fffd label) eqn:Ef.
  - destruct ip as [m|m|]; [discriminate Hp| |reflexivity]. cbn [stay_label]. rewrite (uni1_fffd p tld bd label Ef). reflexivity.
  - rewrite (IH He). apply andb_false_r.
Qed.
Lemma known_c11_pre_ok dbl : forall ap, length dbl = length ap ->
  existsb (fun lp => match snd lp with MixedCaseAscii _ => existsb is_fffd (fst lp) | _ => false end) (combine dbl ap) = false ->
  pre_ok dbl ap.
Proof.
  induction dbl as [|l r IH]; intros ap Hl H; destruct ap as [|e ap]; cbn [length] in Hl; try discriminate; [constructor|].
  cbn [combine existsb fst snd] in H. apply orb_false_iff in H. destruct H as [H1 H2].
  constructor; [destruct e; [exact H1|exact I|exact I]|apply IH; [lia|exact H2]].
Qed.

Section Main.
Variable A : adapter.
Variable cfg : bool.

(* the marking run with had_errors set, outside Known_C11: a validity error, a sink error or a panic - never
   Passthrough, never WroteToSink *)
Theorem mark_err_status d deny hy p k1 k2 w ptu bd db ap :
  process_inner A cfg false hy deny d = IRes ptu bd true db ap -> Known_C11 A cfg d deny hy = false ->
  match fst (fst (process A cfg false p d deny hy k1 k2 w)) with
  | PPassthrough | PWroteToSink => False
  | _ => True
  end.
Proof.
  intros Hi Hk. pose proof (process_inner_FInv A cfg hy deny d) as HF. rewrite Hi in HF. cbn [FInv] in HF.
  destruct HF as [[_ Hc]|(Hlt & dbl & Hdn & Hsp & Hnd & Hhe & Hx & Hlen & Hpb & P & rl & Hd & HP & Hcv)]; [discriminate Hc|].
  unfold Known_C11 in Hk. rewrite Hi in Hk. rewrite Hsp in Hk.
  assert (Hpo : pre_ok dbl ap).
  { destruct bd; [cbn [andb] in Hk; exact (known_c11_pre_ok dbl ap Hlen Hk)|exact (Hpb eq_refl)]. }
  unfold process. rewrite Hi. replace (ptu =? len d) with false by (symmetry; apply N.eqb_neq; lia). cbn [andb].
  destruct (cfg && negb (Bool.eqb true (existsb is_fffd db))); [exact I|]. rewrite Hsp.
  match goal with |- context [walk1 ?a ?b ?c ?d0 ?e ?f ?g ?h ?i ?j ?k ?l ?m] =>
    pose proof (walk1_spec a d0 g b c e f h i j k l m P rl Hlen (fun H => match Bool.diff_false_true H with end)
                  (fun _ => conj Hdn (conj Hd (conj HP Hcv)))) as HW;
    rewrite (stays_has c e f h i Hpo (eq_sym Hhe)) in HW;
    destruct (walk1 a b c d0 e f g h i j k l m) as [ws we] end.
  cbn [fst snd] in *. destruct (run_sink k1 ws) as [s1 through1]. destruct (negb through1); [exact I|].
  unfold Post1 in HW. match type of HW with match ?o with _ => _ end => destruct o as [os|s] end.
  - unfold Res1 in HW. cbn [negb andb snd] in HW. destruct HW as [HW _]. rewrite HW. exact I.
  - cbn [snd] in HW. rewrite HW. exact I.
Qed.

(* C11, the same verdict of to_ascii and to_user_interface, under map_normalize A [] = [] and DenyUpper deny *)
Theorem same_verdict_full d deny hy p : map_normalize A [] = [] -> DenyUpper deny ->
  Known_C11 A cfg d deny hy = false ->
  is_panic (to_ascii A cfg d deny hy DIgnore) = false -> ui_panics (to_user_interface A cfg d deny hy p) = false ->
  res_err (to_ascii A cfg d deny hy DIgnore) = ui_err (to_user_interface A cfg d deny hy p).
Proof.
  intros H0 HD Hk Hp1 Hp2. pose proof (redisc_of_adapter A cfg deny H0 HD) as HRd.
  destruct (to_user_interface A cfg d deny hy p) as [b t e|s] eqn:Eu; [|discriminate]. cbn [ui_err].
  destruct e.
  - rewrite (mark_err_ff_err A cfg d deny hy p b t HRd Eu). reflexivity.
  - destruct (to_ascii A cfg d deny hy DIgnore) as [[b' r]| |s] eqn:Ea; [reflexivity| |discriminate].
    exfalso. destruct (ta_err_inner A cfg d deny hy Ea) as (ptu & bd & db & ap & Ht).
    pose proof (process_inner_sim A cfg hy deny d HRd) as HS. rewrite Ht in HS.
    destruct (process_inner A cfg false hy deny d) as [ptu' bd' he db' ap'|s] eqn:Ei; cbn [inner_sim] in HS.
    2:{ unfold to_user_interface, process in Eu. rewrite Ei in Eu. discriminate Eu. }
    destruct he; [|inversion HS].
    pose proof (mark_err_status d deny hy p None None false ptu' bd' db' ap' Ei Hk) as HM.
    unfold to_user_interface in Eu.
    destruct (process A cfg false p d deny hy None None false) as [[st s] a]. cbn [fst] in HM.
    destruct st; try contradiction; discriminate.
Qed.
End Main.

Lemma c11_same_verdict_full : forall A cfg, map_normalize A [] = [] -> C11_same_verdict_statement A cfg.
Proof.
  intros A cfg H0 d deny hy p Hb Hv Hk Hp1 Hp2.
  exact (same_verdict_full A cfg d deny hy p H0 (proj1 (valid_deny_facts deny Hv)) Hk Hp1 Hp2).
Qed.

(* the premise map_normalize A [] = [] cannot be dropped.
   An adapter that maps the empty text to "a": the all-ASCII label "xn--a-" (trailing hyphen) is rejected at once by
   the fail-fast run, while the marking run "rediscovers" nothing - the mapped stream turns the label into "xn--a-a",
   which decodes and validates *)
Definition nonempty_map : adapter :=
  {| map_normalize := fun l => match l with [] => [97] | _ => l end; normalize_validate := fun l => l;
     joining_type := fun _ => 0; bidi_class := toy_bc;
     is_mark := fun _ => false; is_virama := fun _ => false |}.
Definition W_C11_h0 : list N := [120; 110; 45; 45; 97; 45].    (* "xn--a-" *)
Lemma w_c11_h0 cfg :
  Known_C11 nonempty_map cfg W_C11_h0 DENY_EMPTY HAllow = false /\
  to_ascii nonempty_map cfg W_C11_h0 DENY_EMPTY HAllow DIgnore = Err /\
  to_unicode nonempty_map cfg W_C11_h0 DENY_EMPTY HAllow = UI false [128; 97] false.
Proof. destruct cfg; vm_compute; repeat split; reflexivity. Qed.
Lemma c11_same_verdict_unconditional_refuted : exists A, forall cfg, ~ C11_same_verdict_statement A cfg.
Proof.
  exists nonempty_map. intros cfg H. destruct (w_c11_h0 cfg) as (Hk & Ha & Hu).
  assert (Hb : bytes W_C11_h0) by (unfold W_C11_h0; repeat constructor; unfold is_byte; lia).
  assert (Hv : valid_deny DENY_EMPTY) by (right; exists T_IDNA_EMPTY_GLYPHLESS, T_IDNA_EMPTY_LIST; reflexivity).
  specialize (H W_C11_h0 DENY_EMPTY HAllow always_unicode Hb Hv Hk).
  unfold to_unicode in Hu. rewrite Ha, Hu in H. specialize (H eq_refl eq_refl). discriminate H.
Qed.
