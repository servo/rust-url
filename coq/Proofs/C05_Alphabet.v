(* Proofs/C05_Alphabet.v - from the component invariant to the whole-serialization alphabet (the first sentence
   of the property text): on a record that satisfies CInv (C06's wfh + the component clauses), whose bytes are
   inside 0x20..0x7E (C05_history gives that for every reachable record) and whose stored host text has no space,
   U+0020 can only stand inside the path, and only if the record is cannot-be-a-base:
     ser u = A ++ path ++ Z,  A and Z inside 0x21..0x7E,  and the path too unless cannot_be_a_base.
   The proof reads the serialization as the concatenation of the accessors (C03_WF.accessors_reconcatenate). *)
From RU Require Import Base.Prelude Base.Utf8 Model.AsciiSet Gen.Tables Model.PercentEncoding
  Model.HostT Model.UrlRecord Model.Parser Model.Setters Model.WF
  Proofs.ListN Proofs.C03_WF Proofs.C05_Enc Proofs.C05_Parser Proofs.C05_Sharp Proofs.C05_Comp Proofs.C05_CompSteps
  Proofs.C06_List Proofs.C06_WFI Proofs.C06_Tail Proofs.C06_Steps Proofs.C06_Suffix Proofs.C06_Main.

Definition alphabet_ok (u : url) : Prop :=
  exists A pth Z, ser u = A ++ pth ++ Z /\ path u = Some pth
    /\ Forall ok_byte A /\ Forall ok_byte Z /\ Forall ok_or_space pth
    /\ (cannot_be_a_base u = Some false -> Forall ok_byte pth).

Lemma nosp_ok t : Forall ok_or_space t -> ~ In 32 t -> Forall ok_byte t.
Proof.
  intros H Hn. apply Forall_forall. intros x Hx. rewrite Forall_forall in H. specialize (H x Hx).
  assert (x <> 32) as Hne by (intros ->; exact (Hn Hx)). unfold ok_or_space in H. unfold ok_byte. lia.
Qed.

Lemma ok_nosp t : Forall ok_byte t -> ~ In 32 t.
Proof. intros H Hin. rewrite Forall_forall in H. specialize (H 32 Hin). unfold ok_byte in H. lia. Qed.

Lemma free_nosp D t : In 32 D -> free D t -> ~ In 32 t.
Proof. intros HD H. exact (H 32 HD). Qed.

Lemma not_in_app (x : N) a b : ~ In x a -> ~ In x b -> ~ In x (a ++ b).
Proof. intros Ha Hb H. apply in_app_or in H. tauto. Qed.

Lemma scheme_nosp u : wf_b u = true -> ~ In 32 (piece u 0 (scheme_end u)).
Proof.
  intros W. pose proof (wf_b_iff u) as [Hi _]. destruct (Hi W) as ((_ & _ & S3 & _) & _).
  unfold piece. rewrite N.sub_0_r. change (nskipn 0 (ser u)) with (ser u).
  intros Hin. rewrite forallb_forall in S3. specialize (S3 32 Hin). vm_compute in S3. discriminate S3.
Qed.

Theorem cinv_alphabet dbg u : CInv dbg u -> Forall ok_or_space (ser u) ->
  (has_host u = true -> ~ In 32 (piece u (host_start u) (host_end u))) -> alphabet_ok u.
Proof.
  intros [[W HT] (Cu & Cp & Cpa & Cq & Cf)] Hok Hh.
  destruct (accessors_reconcatenate dbg u W) as (sch & un & pw & hs & pth & q & f & Esch & Eun & Epw & Ehs & Epth & Eq & Ef & Eser & Hh1 & Hh2).
  assert (sch = piece u 0 (scheme_end u)) as Es.
  { rewrite (scheme_eval u W) in Esch. inversion Esch. reflexivity. }
  set (A := sch ++ (if has_authority_b u then s_css else [58])
       ++ un ++ (match pw with Some p => 58 :: p | None => [] end)
       ++ (if has_authority_b u && negb (username_end u =? host_start u) then [64] else [])
       ++ piece u (host_start u) (host_end u)
       ++ (match port u with Some p => 58 :: decimal p | None => [] end)
       ++ (if negb (has_authority_b u) && (path_start u =? scheme_end u + 3) then [47; 46] else [])).
  set (Z := (match q with Some x => 63 :: x | None => [] end) ++ (match f with Some x => 35 :: x | None => [] end)).
  assert (ser u = A ++ pth ++ Z) as E.
  { rewrite Eser. subst A Z. rewrite <- !app_assoc. reflexivity. }
  assert (Forall ok_or_space A /\ Forall ok_or_space pth /\ Forall ok_or_space Z) as (OA & OP & OZ).
  { rewrite E in Hok. apply Forall_app in Hok. destruct Hok as [H1 H2]. apply Forall_app in H2. tauto. }
  assert (In 32 D_USERINFO) as DU by (vm_compute; tauto).
  assert (In 32 D_PATH) as DP by (vm_compute; tauto).
  assert (In 32 D_QUERY) as DQ by (vm_compute; tauto).
  assert (In 32 D_FRAGMENT) as DF by (vm_compute; tauto).
  exists A, pth, Z. split; [exact E|]. split; [exact Epth|]. split; [|split; [|split; [exact OP|]]].
  - apply (nosp_ok A OA). subst A.
    apply not_in_app; [rewrite Es; exact (scheme_nosp u W)|].
    apply not_in_app; [destruct (has_authority_b u); vm_compute; intuition discriminate|].
    apply not_in_app; [exact (free_nosp _ _ DU (Cu un Eun))|].
    apply not_in_app.
    { destruct pw as [p|]; [|intros []]. intros [X|X]; [discriminate|]. exact (free_nosp _ _ DU (Cp p Epw) X). }
    apply not_in_app; [destruct (has_authority_b u && negb (username_end u =? host_start u)); vm_compute; intuition discriminate|].
    apply not_in_app.
    { destruct (has_host u) eqn:Ehh; [exact (Hh eq_refl) | rewrite (Hh2 eq_refl); intros []]. }
    apply not_in_app.
    { destruct (port u) as [p|]; [|intros []]. intros [X|X]; [discriminate|]. exact (ok_nosp _ (decimal_ok p) X). }
    destruct (negb (has_authority_b u) && (path_start u =? scheme_end u + 3)); vm_compute; intuition discriminate.
  - apply (nosp_ok Z OZ). subst Z. apply not_in_app.
    + destruct q as [x|]; [|intros []]. intros [X|X]; [discriminate|]. exact (free_nosp _ _ DQ (Cq x Eq) X).
    + destruct f as [x|]; [|intros []]. intros [X|X]; [discriminate|]. exact (free_nosp _ _ DF (Cf x Ef) X).
  - intros Hc. apply (nosp_ok pth OP).
    destruct (hier_path_head u pth W Hc Epth) as [->|(r & Er)]; [intros []|].
    exact (free_nosp _ _ DP (Cpa pth r Epth Er)).
Qed.

(* a record that is not cannot-be-a-base: the whole serialization is inside 0x21..0x7E *)
Corollary cinv_hier_ok_byte dbg u : CInv dbg u -> Forall ok_or_space (ser u) ->
  (has_host u = true -> ~ In 32 (piece u (host_start u) (host_end u))) ->
  cannot_be_a_base u = Some false -> Forall ok_byte (ser u).
Proof.
  intros K Hok Hh Hc. destruct (cinv_alphabet dbg u K Hok Hh) as (A & pth & Z & E & _ & HA & HZ & _ & HP).
  rewrite E. apply Forall_app. split; [exact HA|]. apply Forall_app. split; [exact (HP Hc) | exact HZ].
Qed.

From RU Require Import Proofs.C05_Setters Proofs.C05_History Proofs.C04_ParseTotal Proofs.C03_ReachParts
  Proofs.C05_CompHist Proofs.C05_CompSteps2 Proofs.C05_CompReach Proofs.C05_BaseOk Proofs.C05_CompSteps3.

(* address values are displayed inside 0x21..0x7E (C05's IpOK restricted to Ipv4Addr / Ipv6Addr values) *)
Definition IpOKv (hd : host -> list N) : Prop := forall h, ip_arg h -> Forall ok_byte (hd h).

Section Reach3.
Variable dbg : bool.
Variable hp hpo : list N -> result host.
Variable hd : host -> list N.
Hypothesis HW : HostWf hp hpo hd.
Hypothesis HOK : HostOK hp hpo hd.
Hypothesis HI : IpDisp hd.
Hypothesis HV : IpOKv hd.

Lemma apply_op_oks3 u o u' : step_gate3 hp hpo hd u o u' -> apply_op dbg hp hpo hd u o = Some u' ->
  Forall ok_or_space (ser u) -> Forall ok_or_space (ser u').
Proof using HOK HV.
  intros G. apply (apply_op_okl_ip dbg hp hpo hd ok_or_space ok_byte_or_space ok_or_space_32 HOK).
  destruct o; try exact I. apply (okl_ok _ ok_byte_or_space), HV. exact (proj1 G).
Qed.

Theorem creach3_oks u : CReach3 dbg hp hpo hd u -> Forall ok_or_space (ser u).
Proof using HOK HV.
  induction 1 as [ovr input u Hp | ovr b input u Rb IHb Hb Hp | u o u' R IH G H].
  - exact (parse_url_okl ok_or_space ok_byte_or_space dbg hp hpo hd ovr HOK None input u (fun _ => ok_or_space_32) Hp I).
  - exact (parse_url_okl ok_or_space ok_byte_or_space dbg hp hpo hd ovr HOK (Some b) input u (fun _ => ok_or_space_32) Hp IHb).
  - exact (apply_op_oks3 u o u' G H IH).
Qed.

(* the first sentence of the property text for every record of CReach3 whose stored host text has no space *)
Theorem creach3_alphabet u : CReach3 dbg hp hpo hd u ->
  (has_host u = true -> ~ In 32 (piece u (host_start u) (host_end u))) -> alphabet_ok u.
Proof using HW HOK HI HV.
  intros R Hh. exact (cinv_alphabet dbg u (creach3_cinv dbg hp hpo hd HW HI u R) (creach3_oks u R) Hh).
Qed.

End Reach3.
