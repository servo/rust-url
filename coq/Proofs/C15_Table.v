(* Proofs/C15_Table.v - the regenerated constants of form_urlencoded/src/lib.rs. *)
From RU Require Import Base.Prelude Gen.Tables
  Model.FormUrlencoded.

(* the class the Standard's urlencoded byte serializer leaves unchanged *)
Definition unchanged_spec (b : N) : bool :=
  is_alnum b || (b =? 42) || (b =? 45) || (b =? 46) || (b =? 95).

Lemma unchanged_table_ok :
  all_below 256 (fun b => Bool.eqb (byte_serialized_unchanged b) (unchanged_spec b)) = true.
Proof. vm_compute. reflexivity. Qed.

Lemma unchanged_table_small : forallb (fun x => x <? 256) T_FORM_UNCHANGED = true.
Proof. vm_compute. reflexivity. Qed.

Theorem unchanged_is_spec b : byte_serialized_unchanged b = unchanged_spec b.
Proof.
  destruct (N.ltb_spec b 256) as [Hb|Hb].
  - apply Bool.eqb_prop. exact (all_below_spec 256 _ unchanged_table_ok b Hb).
  - assert (Hl : byte_serialized_unchanged b = false).
    { unfold byte_serialized_unchanged. destruct (memb b T_FORM_UNCHANGED) eqn:E; [|reflexivity].
      apply memb_spec in E. pose proof unchanged_table_small as Hs.
      rewrite forallb_forall in Hs. apply Hs in E. lia. }
    rewrite Hl. unfold unchanged_spec, is_alnum, is_alpha, is_upper, is_lower, is_digit. lia.
Qed.

(* the literals *)
Theorem form_consts_ok :
  T_FORM_SPACE = 32 /\ T_FORM_SPACE_OUT = [43] /\ T_FORM_PAIR_SEP = 38 /\ T_FORM_KV_SEP = 61
  /\ T_FORM_PLUS = 43 /\ T_FORM_PLUS_REPL = 32 /\ T_FORM_PUSH_SEP = 38 /\ T_FORM_PUSH_EQ = 61.
Proof. repeat split; reflexivity. Qed.

(* the four panic sites are distinct source lines *)
Theorem form_sites_distinct :
  NoDup [T_FORM_SITE_FOR_SUFFIX; T_FORM_SITE_STRING; T_FORM_SITE_FINISH; T_FORM_SITE_CLEAR_TRUNCATE].
Proof.
  repeat constructor; cbn [In]; intros H; repeat (destruct H as [H|H]; [discriminate H|]); exact H.
Qed.
