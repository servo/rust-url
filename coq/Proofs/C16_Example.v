(* Proofs/C16_Example.v - the origin model run inside Coq on concrete URLs, with stand-in host
   functions (a domain is kept as it is; no IDNA, no IP forms).  Used by C16_premises_hold in Properties/C16.v
   (through the lemma examples below) and by the concrete runs colons_example and colons_file_witness at
   the end of Proofs/C16_Colons.v. *)
From RU Require Import Base.Prelude Model.HostT Model.UrlRecord Model.Parser Model.Origin.

Definition toy_host_parse (s : list N) : result host :=
  match s with [] => Err EmptyHost | _ => Ok (HDomain s) end.
Definition toy_host_display (h : host) : list N :=
  match h with HDomain d => d | _ => [] end.
Definition toy_to_unicode (d : list N) : list N := d.

Definition toy_parse (s : list N) : pres url := url_parse true toy_host_parse toy_host_parse toy_host_display s.
Definition toy_origin (c : N) (u : url) : ores := url_origin true toy_host_parse toy_host_parse toy_host_display c u.

(* the origin of the URL a text parses to, starting with counter c *)
Definition origin_of_text (c : N) (s : list N) : option ores :=
  match toy_parse s with POk u => Some (toy_origin c u) | _ => None end.

(* the round trip of the property on one text: parse, take the origin, serialize it, parse again,
   take the origin again *)
Definition rt_of_text (s : list N) : option (origin * list N * option ores) :=
  match origin_of_text 0 s with
  | Some (OOk o c) => Some (o, ascii_serialization toy_host_display o, origin_of_text c (ascii_serialization toy_host_display o))
  | _ => None
  end.

Definition t_https_example_8443_x : list N :=
  [104; 116; 116; 112; 115; 58; 47; 47; 101; 120; 97; 109; 112; 108; 101; 46; 99; 111; 109; 58; 56; 52; 52; 51; 47; 120].
Definition t_https_example_8443 : list N :=
  [104; 116; 116; 112; 115; 58; 47; 47; 101; 120; 97; 109; 112; 108; 101; 46; 99; 111; 109; 58; 56; 52; 52; 51].
Definition t_example_com : list N := [101; 120; 97; 109; 112; 108; 101; 46; 99; 111; 109].
Definition t_blob_blob_https_h_443_x : list N :=
  [98; 108; 111; 98; 58; 98; 108; 111; 98; 58; 104; 116; 116; 112; 115; 58; 47; 47; 104; 58; 52; 52; 51; 47; 120].
Definition t_https_h : list N := [104; 116; 116; 112; 115; 58; 47; 47; 104].
Definition t_data_x : list N := [100; 97; 116; 97; 58; 120].
Definition t_blob_garbage : list N := [98; 108; 111; 98; 58; 103; 97; 114; 98; 97; 103; 101].
Definition t_file_tmp_x : list N := [102; 105; 108; 101; 58; 47; 47; 47; 116; 109; 112; 47; 120].
Definition t_http_h_80 : list N := [104; 116; 116; 112; 58; 47; 47; 104; 58; 56; 48; 47].
Definition t_ws_h : list N := [119; 115; 58; 47; 47; 104; 47].
(* blob:blob:/ followed by three double quotes - the inner serialization blob:/%22%22%22 is LONGER than
   the text it was parsed from *)
Definition t_blob_blob_quotes : list N := [98; 108; 111; 98; 58; 98; 108; 111; 98; 58; 47; 34; 34; 34].

Lemma examples :
  (* a tuple origin with a non-default port, and its round trip *)
  rt_of_text t_https_example_8443_x
  = Some (Tuple s_https (HDomain t_example_com) 8443, t_https_example_8443,
          Some (OOk (Tuple s_https (HDomain t_example_com) 8443) 0))
  (* two levels of blob nesting, default port elided in the serialization, round trip *)
  /\ rt_of_text t_blob_blob_https_h_443_x
     = Some (Tuple s_https (HDomain [104]) 443, t_https_h, Some (OOk (Tuple s_https (HDomain [104]) 443) 0))
  (* opaque kinds: data:, unparsable blob, file - each takes the next identity *)
  /\ origin_of_text 5 t_data_x = Some (OOk (Opaque 5) 6)
  /\ origin_of_text 6 t_blob_garbage = Some (OOk (Opaque 6) 7)
  /\ origin_of_text 7 t_file_tmp_x = Some (OOk (Opaque 7) 8)
  /\ origin_of_text 0 t_blob_blob_quotes = Some (OOk (Opaque 0) 1)
  (* http://h:80/ and ws://h/ have the same host and effective port but different schemes *)
  /\ origin_of_text 0 t_http_h_80 = Some (OOk (Tuple s_http (HDomain [104]) 80) 0)
  /\ origin_of_text 0 t_ws_h = Some (OOk (Tuple s_ws (HDomain [104]) 80) 0)
  /\ origin_eqb (Tuple s_http (HDomain [104]) 80) (Tuple s_ws (HDomain [104]) 80) = false.
Proof. vm_compute. repeat split. Qed.
