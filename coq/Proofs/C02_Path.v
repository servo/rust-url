(* Proofs/C02_Path.v - class (ii) of DESIGN B.5: non-special URLs without authority whose path starts
   with '/', parsed without base.  Canonical form:
     scheme ":" ["/."] "/" seg "/" ... "/" last ["?" q] ["#" f]
   every segment clean for the PATH set, without '/', and not a dot segment in any spelling; the "/."
   marker present exactly when the path starts with "//".
   L3: the path state is the identity on canonical text, and the whole form re-parses to itself.
   The unfolding equations of the path loop (Section Loop) and its L3 (loop_canon) are stated for every scheme class;
   this file, C02_PathSp.v and C02_File.v instantiate them at the non-special, special and file class. *)
From RU Require Import Base.Prelude Base.Utf8 Gen.Tables Model.PercentEncoding Model.HostT Model.UrlRecord
  Model.Parser Proofs.ListN Proofs.C02_Enc Proofs.C02_Parts Proofs.C02_Opaque Proofs.C06_List.

Definition no_slash (s : list N) : bool := forallb (fun c => negb (c =? 47)) s.
Definition good_seg (s : list N) : bool :=
  clean T_PATH s && no_slash s && negb (is_single_dot s) && negb (is_double_dot s).
Definition segs_text (segs : list (list N)) : list N := concat (map (fun s => s ++ [47]) segs).
Definition path_text (segs : list (list N)) (last : list N) : list N := 47 :: segs_text segs ++ last.

Definition seg_char (c : N) : bool := not_tnl c && negb (c =? 47) && negb (is_qh c).
Definition not_tnl_qh' (c : N) : bool := not_tnl c && negb (is_qh c).
Lemma kept_PATH_sat : kept_sat T_PATH not_tnl_qh' = true. Proof. vm_compute. reflexivity. Qed.

Lemma good_seg_parts s : good_seg s = true ->
  clean T_PATH s = true /\ no_slash s = true /\ is_single_dot s = false /\ is_double_dot s = false.
Proof.
  unfold good_seg. intros H. apply andb_true_iff in H. destruct H as [H H4].
  apply andb_true_iff in H. destruct H as [H H3]. apply andb_true_iff in H. destruct H as [H1 H2].
  apply negb_true_iff in H3, H4. tauto.
Qed.

Lemma good_seg_chars s : good_seg s = true -> forallb seg_char s = true.
Proof.
  intros H. destruct (good_seg_parts s H) as (Hc & Hs & _).
  pose proof (clean_forallb _ _ s kept_PATH_sat Hc) as Hq. unfold no_slash in Hs.
  rewrite forallb_forall in *. intros c Hin. specialize (Hq c Hin). specialize (Hs c Hin).
  unfold seg_char, not_tnl_qh' in *. apply andb_true_iff in Hq. destruct Hq as [Q1 Q2]. rewrite Q1, Hs, Q2. reflexivity.
Qed.

Lemma rest_ok_inv rest : match rest with [] => True | c :: _ => is_qh c = true /\ is_tnl c = false end ->
  rest = [] \/ exists c r, rest = c :: r /\ is_qh c = true /\ is_tnl c = false.
Proof. destruct rest as [|c r]; [left; reflexivity | intros [H1 H2]; right; exists c, r; auto]. Qed.

Lemma slice_mid a b c : slice_o (a ++ b ++ c) (nlen a) (nlen a + nlen b) = Some b.
Proof.
  rewrite slice_o_some by (rewrite ?nlen_app; lia).
  replace (nlen a + nlen b - nlen a) with (nlen b) by lia.
  rewrite nskipn_app_len, nfirstn_app_len. reflexivity.
Qed.

(* the path state, URL parser context, any scheme class *)
(* '/' always separates segments, '\\' does for the special schemes *)
Definition sep (st : scheme_type) (c : N) : bool := (c =? 47) || ((c =? 92) && st_is_special st).
Definition nosep (st : scheme_type) (s : list N) : bool := forallb (fun c => negb (sep st c)) s.
Definition plain_char (st : scheme_type) (c : N) : bool := not_tnl c && negb (sep st c) && negb (is_qh c).
(* the input on which the path state returns: its end, or '?' / '#' *)
Definition stops (l : list N) : Prop := match l with [] => True | c :: _ => is_qh c = true /\ is_tnl c = false end.

Lemma sep_ns c : sep STNotSpecial c = (c =? 47).
Proof. unfold sep. cbn [st_is_special]. rewrite andb_false_r. apply orb_false_r. Qed.

Lemma sep_special st c : st_is_special st = true -> sep st c = (c =? 47) || (c =? 92).
Proof. intros H. unfold sep. rewrite H. rewrite andb_true_r. reflexivity. Qed.

Lemma stops_no_sep st c r : stops (c :: r) -> sep st c = false.
Proof.
  intros [Hq _]. assert ((c =? 47) = false /\ (c =? 92) = false) as [H1 H2] by (unfold is_qh in Hq; lia).
  unfold sep. rewrite H1, H2. reflexivity.
Qed.

Lemma stops_no_slash c r : stops (c :: r) -> (c =? 47) = false.
Proof. intros [Hq _]. unfold is_qh in Hq. lia. Qed.

Section Loop.
Variable dbg : bool.
Variable st : scheme_type.
Variable ps : N.

Notation loop := (parse_path_loop dbg CUrlParser st ps).
Notation push := (push_pending CUrlParser st).
Notation finish := (finish_segment dbg st ps).

(* the condition of the arm that writes '/' behind a drive letter: file URLs only *)
Definition drive_arm (ser : list N) : bool :=
  st_is_file st && (ps <? nlen ser) && is_normalized_wdl (nskipn (ps + 1) ser).

(* one step of the loop: tab or newline, a separator, the end of the path, any other character *)
Lemma loop_tnl c r ser ss pend hh : is_tnl c = true ->
  loop (c :: r) ser ss pend hh = loop r (push ser pend) ss [] hh.
Proof. intros Ht. cbn [parse_path_loop]. rewrite Ht. reflexivity. Qed.

Lemma loop_sep c r ser ss pend hh : is_tnl c = false -> sep st c = true ->
  loop (c :: r) ser ss pend hh
  = (' (s2, hh') <~ finish (push ser pend ++ [47]) ss true hh ;; loop r s2 (nlen s2) [] hh').
Proof.
  intros Ht Hs. cbn [parse_path_loop]. rewrite Ht. cbn [ctx_eqb negb andb]. unfold sep in Hs. rewrite Hs. reflexivity.
Qed.

Lemma loop_stop l ser ss pend hh : stops l ->
  loop l ser ss pend hh
  = (' (s2, hh') <~ finish (push ser pend) ss false hh ;; POk (file_path_fixup st ps s2, hh', l)).
Proof.
  destruct l as [|c r]; [intros _; reflexivity|]. intros Hl. pose proof (stops_no_sep st c r Hl) as Hs. destruct Hl as [Hq Ht].
  cbn [parse_path_loop]. rewrite Ht. cbn [ctx_eqb negb andb]. unfold sep in Hs. rewrite Hs.
  unfold is_qh in Hq. rewrite Hq. reflexivity.
Qed.

Lemma loop_plain c r ser ss pend hh : is_tnl c = false -> sep st c = false -> is_qh c = false -> drive_arm ser = false ->
  loop (c :: r) ser ss pend hh = loop r ser ss (c :: pend) hh.
Proof.
  intros Ht Hs Hq Hd. cbn [parse_path_loop]. rewrite Ht. cbn [ctx_eqb negb andb]. unfold sep in Hs. rewrite Hs.
  unfold is_qh in Hq. rewrite Hq. cbn [andb]. unfold drive_arm in Hd. rewrite Hd. reflexivity.
Qed.

Lemma loop_drive_arm c r ser ss pend hh : is_tnl c = false -> sep st c = false -> is_qh c = false -> drive_arm ser = true ->
  loop (c :: r) ser ss pend hh = loop r (push ser pend ++ [47]) (ss + 1) [c] hh.
Proof.
  intros Ht Hs Hq Hd. cbn [parse_path_loop]. rewrite Ht. cbn [ctx_eqb negb andb]. unfold sep in Hs. rewrite Hs.
  unfold is_qh in Hq. rewrite Hq. cbn [andb]. unfold drive_arm in Hd. rewrite Hd. reflexivity.
Qed.

Lemma loop_chars seg : forall tail ser ss pend hh, forallb (plain_char st) seg = true -> drive_arm ser = false ->
  loop (seg ++ tail) ser ss pend hh = loop tail ser ss (rev seg ++ pend) hh.
Proof.
  induction seg as [|c s IH]; intros tail ser ss pend hh H Hd; [reflexivity|].
  cbn [forallb] in H. apply andb_true_iff in H. destruct H as [Hc Hs].
  unfold plain_char, not_tnl in Hc. apply andb_true_iff in Hc. destruct Hc as [Hc H3].
  apply andb_true_iff in Hc. destruct Hc as [H1 H2]. apply negb_true_iff in H1, H2, H3.
  cbn [app]. rewrite loop_plain by assumption. rewrite IH by assumption.
  cbn [rev]. rewrite <- app_assoc. reflexivity.
Qed.

Lemma push_pending_eq ser pend : usv_list pend ->
  push ser pend = ser ++ encode T_PATH (utf8_encode (rev pend)).
Proof.
  intros H. unfold push_pending. destruct pend as [|x y]; [cbn; rewrite app_nil_r; reflexivity|].
  unfold path_set. cbn [ctx_eqb]. apply push_encoded_eq. apply usv_rev. exact H.
Qed.

(* rev seg ++ [] is what the loop has pending after reading seg with nothing pending before *)
Lemma push_pending_clean ser seg : clean T_PATH seg = true -> push ser (rev seg ++ []) = ser ++ seg.
Proof.
  intros H. pose proof (clean_ascii T_PATH seg H) as Ha. rewrite app_nil_r.
  rewrite push_pending_eq by (apply usv_rev; apply ascii_usv; exact Ha).
  rewrite rev_involutive. rewrite utf8_encode_ascii by exact Ha. rewrite encode_clean by exact H. reflexivity.
Qed.

(* the drive arm does not fire twice in a row: behind "C:" it has written a '/' *)
Lemma arm_twice ser X : drive_arm ser = true -> drive_arm ((ser ++ X) ++ [47]) = false.
Proof.
  unfold drive_arm. intros H. apply andb_true_iff in H. destruct H as [H Hw]. apply andb_true_iff in H. destruct H as [_ Hl].
  rewrite <- app_assoc. rewrite (nskipn_app_le (ps + 1) ser (X ++ [47])) by lia.
  unfold is_normalized_wdl, is_wdl in *. destruct (nskipn (ps + 1) ser) as [|a [|b [|c t]]]; try discriminate Hw.
  cbn [app]. destruct X; cbn [app length Nat.eqb andb]; apply andb_false_r.
Qed.

(* a run of plain characters when the arm may fire at its first one *)
Lemma loop_chars_arm seg tail ser ss pend hh : seg <> [] -> forallb (plain_char st) seg = true -> usv_list pend ->
  loop (seg ++ tail) ser ss pend hh
  = if drive_arm ser then loop tail (push ser pend ++ [47]) (ss + 1) (rev seg) hh else loop tail ser ss (rev seg ++ pend) hh.
Proof.
  intros Hne H Hu. destruct (drive_arm ser) eqn:E; [|apply loop_chars; assumption].
  destruct seg as [|c s]; [contradiction|]. cbn [forallb] in H. apply andb_true_iff in H. destruct H as [Hc Hs].
  unfold plain_char, not_tnl in Hc. apply andb_true_iff in Hc. destruct Hc as [Hc H3].
  apply andb_true_iff in Hc. destruct Hc as [H1 H2]. apply negb_true_iff in H1, H2, H3.
  cbn [app]. rewrite loop_drive_arm by assumption. rewrite loop_chars; [reflexivity | exact Hs|].
  rewrite push_pending_eq by exact Hu. apply arm_twice. exact E.
Qed.

(* the end of a segment that is neither a dot segment nor a drive letter in first place *)
Lemma finish_keep ser ss (ews : bool) hh seg :
  slice_o ser ss (if ews then nlen ser - 1 else nlen ser) = Some seg ->
  is_double_dot seg = false -> is_single_dot seg = false -> st_is_file st && (ss =? ps + 1) && is_wdl seg = false ->
  finish ser ss ews hh = POk (ser, hh).
Proof. intros Hs Hd Hsd Hw. unfold finish_segment. rewrite Hs. cbn [of_option pbind]. rewrite Hd, Hsd, Hw. reflexivity. Qed.

(* L3 for the path state: text made of segments that the loop keeps is pushed unchanged *)
Section Canon.
Variable G : list N -> bool.
Hypothesis G_clean : forall s, G s = true -> clean T_PATH s = true.
Hypothesis G_chars : forall s, G s = true -> forallb (plain_char st) s = true.
Hypothesis G_keep : forall s ss, G s = true ->
  is_double_dot s = false /\ is_single_dot s = false /\ st_is_file st && (ss =? ps + 1) && is_wdl s = false.

Theorem loop_canon segs : forall last rest ser hh,
  forallb G segs = true -> G last = true -> stops rest ->
  (forall X, drive_arm (ser ++ segs_text X) = false) ->
  loop (segs_text segs ++ last ++ rest) ser (nlen ser) [] hh
  = POk (file_path_fixup st ps (ser ++ segs_text segs ++ last), hh, rest).
Proof.
  induction segs as [|seg segs IH]; intros last rest ser hh Hsegs Hlast Hrest Harm;
    pose proof (Harm []) as Harm0; cbn [segs_text map concat] in Harm0; rewrite app_nil_r in Harm0.
  - cbn [segs_text map concat app].
    destruct (G_keep last (nlen ser) Hlast) as (Hdd & Hsd & Hw).
    rewrite loop_chars by (try apply G_chars; assumption).
    rewrite loop_stop by exact Hrest.
    rewrite push_pending_clean by (apply G_clean; exact Hlast).
    rewrite (finish_keep (ser ++ last) (nlen ser) false hh last); [reflexivity | | exact Hdd | exact Hsd | exact Hw].
    rewrite <- (app_nil_r (ser ++ last)) at 1. rewrite <- app_assoc. rewrite nlen_app. apply slice_mid.
  - cbn [forallb] in Hsegs. apply andb_true_iff in Hsegs. destruct Hsegs as [Hseg Hsegs].
    destruct (G_keep seg (nlen ser) Hseg) as (Hdd & Hsd & Hw).
    unfold segs_text. cbn [map concat]. fold (segs_text segs). rewrite <- !app_assoc. cbn [app].
    rewrite loop_chars by (try apply G_chars; assumption).
    rewrite loop_sep by reflexivity. rewrite push_pending_clean by (apply G_clean; exact Hseg).
    rewrite (finish_keep ((ser ++ seg) ++ [47]) (nlen ser) true hh seg); [| | exact Hdd | exact Hsd | exact Hw].
    + cbn [pbind]. rewrite IH; try assumption.
      * rewrite <- !app_assoc. reflexivity.
      * intros X. specialize (Harm (seg :: X)). unfold segs_text in Harm. cbn [map concat] in Harm.
        rewrite <- !app_assoc in *. exact Harm.
    + rewrite <- app_assoc. rewrite !nlen_app.
      replace (nlen ser + (nlen seg + nlen [47]) - 1) with (nlen ser + nlen seg) by (unfold nlen; cbn [length]; lia).
      apply slice_mid.
Qed.
End Canon.

End Loop.

Lemma plain_char_ns c : plain_char STNotSpecial c = seg_char c.
Proof. unfold plain_char, seg_char. rewrite sep_ns. reflexivity. Qed.

Section PathLoop.
Variable dbg : bool.
Variable ps : N.

Notation loop := (parse_path_loop dbg CUrlParser STNotSpecial ps).

(* the steps for a non-special scheme *)
Lemma loop_cons_plain c r ser ss pend hh : is_tnl c = false -> (c =? 47) = false -> is_qh c = false ->
  loop (c :: r) ser ss pend hh = loop r ser ss (c :: pend) hh.
Proof. intros Ht Hs Hq. apply loop_plain; try assumption; [rewrite sep_ns; exact Hs | reflexivity]. Qed.

Lemma loop_cons_tnl c r ser ss pend hh : is_tnl c = true ->
  loop (c :: r) ser ss pend hh = loop r (push_pending CUrlParser STNotSpecial ser pend) ss [] hh.
Proof. apply loop_tnl. Qed.

Lemma loop_cons_slash r ser ss pend hh :
  loop (47 :: r) ser ss pend hh
  = (' (s2, hh') <~ finish_segment dbg STNotSpecial ps (push_pending CUrlParser STNotSpecial ser pend ++ [47]) ss true hh ;;
     loop r s2 (nlen s2) [] hh').
Proof. reflexivity. Qed.

Lemma loop_end l ser ss pend hh :
  match l with [] => True | c :: _ => is_qh c = true /\ is_tnl c = false end ->
  loop l ser ss pend hh
  = (' (s2, hh') <~ finish_segment dbg STNotSpecial ps (push_pending CUrlParser STNotSpecial ser pend) ss false hh ;;
     POk (s2, hh', l)).
Proof. apply loop_stop. Qed.

Lemma finish_plain ser ss (ews : bool) hh seg :
  slice_o ser ss (if ews then nlen ser - 1 else nlen ser) = Some seg ->
  is_double_dot seg = false -> is_single_dot seg = false ->
  finish_segment dbg STNotSpecial ps ser ss ews hh = POk (ser, hh).
Proof. intros Hs Hd Hsd. apply (finish_keep dbg STNotSpecial ps ser ss ews hh seg Hs Hd Hsd). reflexivity. Qed.

Theorem path_loop_canon segs : forall last rest ser hh,
  forallb good_seg segs = true -> good_seg last = true ->
  match rest with [] => True | c :: _ => is_qh c = true /\ is_tnl c = false end ->
  loop (segs_text segs ++ last ++ rest) ser (nlen ser) [] hh = POk (ser ++ segs_text segs ++ last, hh, rest).
Proof.
  intros last rest ser hh Hsegs Hlast Hrest.
  apply (loop_canon dbg STNotSpecial ps good_seg); try assumption; try reflexivity.
  - intros s H. apply (good_seg_parts s H).
  - intros s H. apply (forallb_impl seg_char); [intros c Hc; rewrite plain_char_ns; exact Hc | apply good_seg_chars; exact H].
  - intros s ss H. destruct (good_seg_parts s H) as (_ & _ & Hsd & Hdd). repeat split; assumption.
Qed.

End PathLoop.

Definition marker_of (T : list N) : list N := if starts_with s_ss T then [47; 46] else [].
Definition noauth_pre (sch T : list N) : list N := (sch ++ [58]) ++ marker_of T ++ T.
Definition noauth_ser (sch T : list N) (q f : option (list N)) : list N := noauth_pre sch T ++ qf_text q f.
Definition noauth_url (sch T : list N) (q f : option (list N)) : url :=
  let a := nlen (sch ++ [58]) in
  mkUrl (noauth_ser sch T q f) (nlen sch) a a a HI_None None (a + nlen (marker_of T))
        (qf_qs (nlen (noauth_pre sch T)) q) (qf_fs (nlen (noauth_pre sch T)) q f).

Record noauth_ok (sch : list N) (segs : list (list N)) (last : list N) (q f : option (list N)) : Prop := mk_noauth_ok {
  nk_sch : scheme_canon sch = true;
  nk_ns : scheme_type_of sch = STNotSpecial;
  nk_segs : forallb good_seg segs = true;
  nk_last : good_seg last = true;
  nk_q : opt_clean T_QUERY q;
  nk_f : opt_clean T_FRAGMENT f;
  nk_b1 : nlen (sch ++ [58]) <= U32_MAX_P;
  nk_bq : opt_le (qf_qs (nlen (noauth_pre sch (path_text segs last))) q) U32_MAX_P;
  nk_bf : opt_le (qf_fs (nlen (noauth_pre sch (path_text segs last))) q f) U32_MAX_P
}.

Lemma inp_split_prefix_str_ss_cons c r : is_tnl c = false -> (c =? 47) = false ->
  inp_split_prefix_str s_ss (c :: r) = None.
Proof. intros Ht H. unfold s_ss. cbn [inp_split_prefix_str]. rewrite inp_next_cons by exact Ht. rewrite H. reflexivity. Qed.

Section NoAuth.
Variable dbg : bool.
Variable hp hpo : list N -> result host.
Variable hd : host -> list N.
Variable ovr : option (list N -> list N).

(* the tail of the non-special branch once the path state has produced  pre ++ T *)
Lemma wqf_noauth_eq sch T rest : starts_with [47] T = true ->
  let a := nlen (sch ++ [58]) in
  with_query_and_fragment ovr CUrlParser STNotSpecial (nlen sch) a a a HI_None None a ((sch ++ [58]) ++ T) rest
  = (' (s2, qs, fs) <~ parse_query_and_fragment ovr CUrlParser STNotSpecial (nlen sch) (noauth_pre sch T) rest ;;
     POk (mkUrl s2 (nlen sch) a a a HI_None None (a + nlen (marker_of T)) qs fs)).
Proof.
  intros HT a. unfold with_query_and_fragment.
  assert (a =? nlen sch + 1 = true) as E1 by (unfold a; rewrite nlen_app; unfold nlen; cbn [length]; lia).
  rewrite E1. unfold a. rewrite nskipn_app_len, nfirstn_app_len.
  destruct T as [|t0 T']; [discriminate|]. cbn [starts_with] in HT. rewrite andb_true_r in HT.
  apply N.eqb_eq in HT. subst t0.
  unfold noauth_pre, marker_of.
  destruct (starts_with s_ss (47 :: T')) eqn:Ess.
  - assert (starts_with s_css (nskipn (nlen sch) ((sch ++ [58]) ++ [47; 46] ++ 47 :: T')) = false) as E2.
    { rewrite <- !app_assoc. rewrite nskipn_app_len. reflexivity. }
    rewrite E2. cbn [negb passert pbind]. unfold nlen at 8. cbn [length].
    replace (nlen (sch ++ [58]) + N.of_nat 2) with (nlen (sch ++ [58]) + 2) by lia. reflexivity.
  - assert (starts_with s_css (nskipn (nlen sch) ((sch ++ [58]) ++ 47 :: T')) = false) as E2.
    { rewrite <- !app_assoc. rewrite nskipn_app_len. unfold s_css. cbn [app starts_with].
      replace (58 =? 58) with true by reflexivity. replace (47 =? 47) with true by reflexivity. cbn [andb].
      unfold s_ss in Ess. cbn [starts_with] in Ess.
      replace (47 =? 47) with true in Ess by reflexivity. cbn [andb] in Ess. exact Ess. }
    rewrite E2. cbn [negb passert pbind app]. rewrite N.add_0_r. reflexivity.
Qed.

Lemma wqf_noauth sch T rest s2 qs fs : starts_with [47] T = true ->
  parse_query_and_fragment ovr CUrlParser STNotSpecial (nlen sch) (noauth_pre sch T) rest = POk (s2, qs, fs) ->
  let a := nlen (sch ++ [58]) in
  with_query_and_fragment ovr CUrlParser STNotSpecial (nlen sch) a a a HI_None None a ((sch ++ [58]) ++ T) rest
  = POk (mkUrl s2 (nlen sch) a a a HI_None None (a + nlen (marker_of T)) qs fs).
Proof. intros HT Hq a. unfold a. rewrite (wqf_noauth_eq sch T rest HT). cbv zeta. rewrite Hq. reflexivity. Qed.

Lemma above_not_tnl c : above_space c = true -> is_tnl c = false.
Proof. unfold above_space, is_c0_or_space, is_tnl. lia. Qed.

Lemma scheme_above sch : forallb scheme_out_char sch = true -> forallb above_space sch = true.
Proof.
  apply forallb_impl. intros c H. unfold scheme_out_char, is_lower, is_digit, above_space, is_c0_or_space in *. lia.
Qed.

Lemma good_seg_above s : good_seg s = true -> forallb above_space s = true.
Proof. intros H. destruct (good_seg_parts s H) as (Hc & _). exact (clean_forallb _ _ s kept_PATH_above Hc). Qed.

Lemma segs_text_above segs : forallb good_seg segs = true -> forallb above_space (segs_text segs) = true.
Proof.
  induction segs as [|s segs IH]; intros H; [reflexivity|].
  cbn [forallb] in H. apply andb_true_iff in H. destruct H as [H1 H2].
  unfold segs_text. cbn [map concat]. fold (segs_text segs). rewrite !forallb_app.
  rewrite (good_seg_above s H1), (IH H2). reflexivity.
Qed.

Lemma qf_text_above_set Sq q f : kept_sat Sq above_space = true -> opt_clean Sq q -> opt_clean T_FRAGMENT f ->
  forallb above_space (qf_text q f) = true.
Proof.
  intros HS Hq Hf. unfold qf_text. rewrite forallb_app. apply andb_true_iff. split.
  - destruct q as [x|]; [|reflexivity]. cbn [qf_qtext forallb]. rewrite (clean_forallb _ _ x HS Hq). reflexivity.
  - destruct f as [y|]; [|reflexivity]. cbn [qf_ftext forallb]. rewrite (clean_forallb _ _ y kept_FRAGMENT_above Hf). reflexivity.
Qed.

Lemma qf_text_above q f : opt_clean T_QUERY q -> opt_clean T_FRAGMENT f -> forallb above_space (qf_text q f) = true.
Proof. apply qf_text_above_set. exact kept_QUERY_above. Qed.

Lemma all_above_edge l : forallb above_space l = true -> edge_ok l.
Proof.
  intros H. apply forallb_above in H. split.
  - destruct l as [|c r]; [exact I|]. inversion H; assumption.
  - apply Forall_rev in H. destruct (rev l) as [|c r]; [exact I|]. inversion H; assumption.
Qed.

Lemma inp_next_above l : forallb above_space l = true -> inp_next l = match l with [] => None | c :: r => Some (c, r) end.
Proof.
  destruct l as [|c r]; [reflexivity|]. cbn [forallb]. intros H. apply andb_true_iff in H. destruct H as [H _].
  apply inp_next_cons. apply above_not_tnl. exact H.
Qed.

Lemma ends_with_byte_snoc x b : ends_with_byte b (x ++ [b]) = true.
Proof. unfold ends_with_byte. rewrite rev_app_distr. cbn [rev app]. apply N.eqb_refl. Qed.

(* the "/." marker: a single-dot segment followed by '/' leaves the state unchanged *)
Lemma loop_marker ps s0 X hh : ends_with_byte 47 s0 = true ->
  parse_path_loop dbg CUrlParser STNotSpecial ps (46 :: 47 :: X) s0 (nlen s0) [] hh
  = parse_path_loop dbg CUrlParser STNotSpecial ps X s0 (nlen s0) [] hh.
Proof.
  intros He. rewrite loop_cons_plain by reflexivity. rewrite loop_cons_slash.
  change [46] with (rev [46] ++ []). rewrite push_pending_clean by reflexivity.
  unfold finish_segment.
  assert (slice_o ((s0 ++ [46]) ++ [47]) (nlen s0) (nlen ((s0 ++ [46]) ++ [47]) - 1) = Some [46]) as Hs.
  { rewrite <- app_assoc. rewrite !nlen_app.
    replace (nlen s0 + (nlen [46] + nlen [47]) - 1) with (nlen s0 + nlen [46]) by (unfold nlen; cbn [length]; lia).
    apply slice_mid. }
  rewrite Hs. cbn [of_option pbind is_double_dot is_single_dot].
  unfold truncate. rewrite <- app_assoc. rewrite nfirstn_app_len. rewrite He. cbn [pbind]. reflexivity.
Qed.

(* L3 for the class *)
Theorem reparse_noauth_form sch segs last q f : noauth_ok sch segs last q f ->
  parse_url dbg hp hpo hd ovr None (noauth_ser sch (path_text segs last) q f)
  = POk (noauth_url sch (path_text segs last) q f).
Proof.
  intros K. destruct K. set (T := path_text segs last) in *. set (body := segs_text segs ++ last).
  assert (stops (qf_text q f)) as Hqf by (unfold qf_text; destruct q; destruct f; cbn; auto).
  pose proof nk_sch0 as Hsc. unfold scheme_canon in Hsc. apply andb_true_iff in Hsc. destruct Hsc as [_ Hall].
  assert (forallb above_space body = true) as Hbody.
  { unfold body. rewrite forallb_app, (segs_text_above segs nk_segs0), (good_seg_above last nk_last0). reflexivity. }
  assert (T = 47 :: body) as ET by reflexivity.
  (* the rest behind the scheme is '/' followed by X: the marker shows as a leading "./" of X *)
  set (X := if starts_with s_ss T then 46 :: 47 :: body ++ qf_text q f else body ++ qf_text q f).
  assert (marker_of T ++ T ++ qf_text q f = 47 :: X) as EX.
  { unfold marker_of, X. rewrite ET. destruct (starts_with s_ss (47 :: body)); reflexivity. }
  assert (forallb above_space X = true) as HX.
  { unfold X. destruct (starts_with s_ss T); cbn [forallb]; rewrite forallb_app, Hbody, (qf_text_above q f nk_q0 nk_f0); reflexivity. }
  assert (edge_ok (noauth_ser sch T q f)) as He.
  { apply all_above_edge. unfold noauth_ser, noauth_pre. rewrite <- !app_assoc, EX. rewrite forallb_app.
    rewrite (scheme_above sch Hall). cbn [andb app forallb]. exact HX. }
  assert (inp_split_prefix_str s_ss (47 :: X) = None) as Hss.
  { unfold s_ss. cbn [inp_split_prefix_str]. rewrite inp_next_cons by reflexivity. replace (47 =? 47) with true by reflexivity.
    rewrite (inp_next_above X HX). unfold X. destruct (starts_with s_ss T) eqn:Ess; [reflexivity|].
    rewrite ET in Ess. unfold s_ss in Ess. cbn [starts_with] in Ess. replace (47 =? 47) with true in Ess by reflexivity. cbn [andb] in Ess.
    destruct body as [|b0 b']; cbn [app].
    - destruct (qf_text q f) as [|c r]; [reflexivity|]. rewrite (stops_no_slash c r Hqf). reflexivity.
    - rewrite andb_true_r in Ess. rewrite N.eqb_sym, Ess. reflexivity. }
  assert (forall hh, parse_path dbg CUrlParser STNotSpecial hh (nlen (sch ++ [58])) ((sch ++ [58]) ++ [47]) X
                     = POk ((sch ++ [58]) ++ T, hh, qf_text q f)) as Hpath.
  { intros hh. unfold parse_path.
    assert (parse_path_loop dbg CUrlParser STNotSpecial (nlen (sch ++ [58])) (body ++ qf_text q f)
              ((sch ++ [58]) ++ [47]) (nlen ((sch ++ [58]) ++ [47])) [] hh = POk ((sch ++ [58]) ++ T, hh, qf_text q f)) as Hloop.
    { unfold body. rewrite <- app_assoc. rewrite path_loop_canon by assumption.
      rewrite ET. unfold body. rewrite <- !app_assoc. reflexivity. }
    unfold X. destruct (starts_with s_ss T); [rewrite loop_marker by apply ends_with_byte_snoc|]; exact Hloop. }
  assert (parse_query_and_fragment ovr CUrlParser STNotSpecial (nlen sch) (noauth_pre sch T) (qf_text q f)
          = POk (noauth_pre sch T ++ qf_text q f, qf_qs (nlen (noauth_pre sch T)) q, qf_fs (nlen (noauth_pre sch T)) q f)) as Hpqf.
  { apply pqf_canon; try assumption.
    unfold noauth_pre. rewrite <- !app_assoc. rewrite nfirstn_app_len. apply query_enc_nonspecial. exact nk_ns0. }
  unfold parse_url. rewrite trim_c0_id by exact He.
  unfold noauth_ser, noauth_pre. rewrite <- !app_assoc, EX. cbn [app].
  rewrite parse_scheme_canon by exact nk_sch0.
  unfold parse_with_scheme. rewrite nk_ns0.
  rewrite to_u32_ok by (rewrite nlen_app in nk_b2; lia). cbn [pbind].
  unfold parse_non_special. rewrite Hss. rewrite to_u32_ok by exact nk_b2. cbn [pbind].
  unfold inp_split_prefix_char. rewrite inp_next_cons by reflexivity. replace (47 =? 47) with true by reflexivity.
  rewrite Hpath. cbn [pbind].
  exact (wqf_noauth sch T (qf_text q f) _ _ _ eq_refl Hpqf).
Qed.

End NoAuth.
