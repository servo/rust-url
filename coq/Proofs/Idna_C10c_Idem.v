(* Proofs/Idna_C10c_Idem.v - ToASCII is idempotent (C10), every input, every option combination, outside the class
   Known_C10_long (F-C10-1), relative to sampled facts about idna_adapter.

   C10_idem_statement3: AdapterOK, AdapterUSV, NvNoTrunc, NvIdem, AsciiNoMark, MapPrefix  ==>  whenever to_ascii returns
   Ok (b, r) for a byte string and r has no over-long xn-- label, to_ascii returns r for r, BORROWED.
   Compared with C10_idem_statement2 of Proofs/Idna_C10b_Stmt.v: the conclusion is stronger (Ok (true, r), not some
   Ok (b', r)), and there are two more adapter premises:
     AdapterUSV (the normalizers return scalar values - true by type) and
     MapPrefix  (map_normalize (a ++ c :: r) = lower-cased a ++ map_normalize (c :: r) for ASCII a and ASCII c:
                 uts46.rs feeds map_normalize only the part of a label that starts at the last ASCII character before the
                 first non-ASCII one; the ASCII prefix goes into the buffer directly).
   Without MapPrefix the statement is false for an abstract adapter: c10_idem2_refuted (Proofs/Idna_C10c_Refute.v)
   refutes C10_idem_statement2.  C10_idem_statement of Proofs/Idna_Hyp.v (no exclusion of Known_C10_long) is refuted
   by c10_idem_refuted (Proofs/Idna_C10b_Long.v).  The theorem is c10_idem3, at the end of the file. *)
From RU Require Import Base.Prelude Base.Utf8 Base.U32_c13 Gen.Tables Model.Punycode Model.Uts46
  Proofs.C13_Ascii Proofs.Idna_Sim Proofs.Idna_Api Proofs.Idna_Known Proofs.Idna_Hyp Proofs.Idna_Redisc
  Proofs.Idna_C10_Deny Proofs.Idna_C10_Puny Proofs.Idna_C10_Prefix Proofs.Idna_C10_Inner Proofs.Idna_C10_Walk
  Proofs.Idna_C10b_Long Proofs.Idna_C10b_AsciiInner Proofs.Idna_C10b_AsciiWalk Proofs.Idna_C10b_Stmt
  Proofs.Idna_WalkFun Proofs.Idna_WalkInv Proofs.Idna_WalkApi Proofs.Idna_WalkEnc Proofs.Idna_PunyRT
  Proofs.Idna_C10c_Puny Proofs.Idna_C10c_Start Proofs.Idna_C10c_Drun Proofs.Idna_C10c_Loop Proofs.Idna_C10c_Rerun
  Proofs.Idna_Mark.

Lemma lower_noupper_b m : existsb is_upper (map to_lower m) = false.
Proof.
  induction m as [|x r IH]; [reflexivity|]. cbn [map existsb]. rewrite IH, orb_false_r.
  unfold to_lower, is_upper. destruct ((65 <=? x) && (x <=? 90)) eqn:E; [lia|exact E].
Qed.
Lemma prefix_not_pass o : Forall (fun b => b < 128) o -> has_punycode_prefix o = true -> is_passthrough_ascii_label o = false.
Proof.
  intros Ha Hp. destruct (xn_prefix_spec o Ha Hp) as (a & b & r & -> & _ & _). unfold is_passthrough_ascii_label.
  replace (4 <=? len (a :: b :: 45 :: 45 :: r)) with true; [reflexivity|].
  symmetry. apply N.leb_le. unfold len. cbn [length]. lia.
Qed.
Lemma app_eq_len (a b c e : list N) : a ++ b = c ++ e -> len a = len c -> a = c.
Proof.
  intros H Hl. rewrite <- (firstn_len_app a b), <- (firstn_len_app c e), H, Hl. reflexivity.
Qed.

Section Idem.
Variable A : adapter.
Variable cfg : bool.
Variable deny : N.
Variable hy : hyphens.
Hypothesis HU : DenyUpper deny.
Hypothesis HL : LdhFree deny.
Hypothesis HOK : AdapterOK A.
Hypothesis HUSV : AdapterUSV A.
Hypothesis HNT : NvNoTrunc A.
Hypothesis HNI : NvIdem A.
Hypothesis HNM : AsciiNoMark A.
Hypothesis HMP : MapPrefix A.

Notation PairOK := (PairOK A cfg deny hy).
Notation RT := (RT A cfg deny hy).
Notation dd := (dd deny).

(* what the internal encoder writes for an accepted non-ASCII label *)
Lemma other_enc dbl p : Forall (gc dd) dbl -> chk A cfg hy dbl -> usv_list dbl -> is_ascii_l dbl = false ->
  encode_internal cfg dbl = Ok p ->
  p <> [] /\ last_opt p <> Some DELIMITER /\ nodot p /\ Forall (clean deny) p /\ decode_with cfg U8Internal p = Ok dbl.
Proof.
  intros Hg Hchk Hu Hna He.
  pose proof (chk_len A cfg hy dbl Hchk Hna) as Hlen.
  pose proof (gc_all_noupper deny DOT_MASK dbl HU Hg) as Hup.
  destruct (encode_no_trailing_delim cfg dbl p Hlen Hu Hup Hna He) as [H1 H2].
  split; [exact H1|]. split; [exact H2|]. split.
  - apply notin_nodot. apply (encode_nodot cfg dbl p Hlen Hu Hup); [|exact He]. apply nodot_notin. exact (gc_all_nodot deny dbl Hg).
  - split.
    + apply (encode_internal_clean cfg deny dbl p HL); [|exact He]. eapply Forall_impl; [|exact Hg]. intros c. apply gc_okc.
    + exact (proj2 (punyrt_noupper cfg dbl p Hlen Hu Hup He)).
Qed.

Lemma clean_ascii l : Forall (clean deny) l -> Forall (fun b => b < 128) l.
Proof. intros H. eapply Forall_impl; [|exact H]. intros c [Hc _]. exact Hc. Qed.
Lemma clean_noupper l : Forall (clean deny) l -> existsb is_upper l = false.
Proof.
  induction 1 as [|c r Hc _ IH]; [reflexivity|]. cbn [existsb]. rewrite IH, orb_false_r.
  exact (proj1 (proj2 (clean_final deny c HU Hc))).
Qed.

Lemma pair_out_nodot dbl e o : PairOK dbl e -> out_label cfg is_ascii_l dbl e = inl o -> nodot o.
Proof.
  intros HP Ho. destruct HP as [m Han Hn Hacc|m dec dbl Ha Hn Hp Hc Hd Hapd Hchk Hna|dbl Hnv Hg Hchk Hu Hpre]; cbn [out_label] in Ho.
  - inversion Ho. apply lower_nodot. exact Hn.
  - rewrite Hna in Ho. inversion Ho. apply lower_nodot. exact Hn.
  - destruct (is_ascii_l dbl) eqn:Easc.
    + inversion Ho. subst o. exact (gc_all_nodot deny dbl Hg).
    + unfold enc_label in Ho. destruct (encode_internal cfg dbl) as [p| |s] eqn:Ee; try discriminate. inversion Ho. subst o.
      destruct (other_enc dbl p Hg Hchk Hu Easc Ee) as (_ & _ & Hnd & _).
      unfold nodot. unfold XN_PREFIX. cbn [app]. repeat (constructor; [unfold DOT; lia|]). exact Hnd.
Qed.

(* the second run rediscovers the label of the buffer from the text written for it, and records the entry shown:
   the input label of the second run is the text o, so a Mixed entry carries the lower-cased input label of the first
   run, and a label whose entry was AalOther gets MixedCaseAscii dbl when it is ASCII (o = dbl), else MixedCasePunycode
   of the xn-- text o written for it *)
Lemma pair_rt_entry dbl e o : PairOK dbl e -> out_label cfg is_ascii_l dbl e = inl o -> long_puny_label o = false ->
  RT o dbl match e with
           | MixedCaseAscii m => MixedCaseAscii (map to_lower m)
           | MixedCasePunycode m => MixedCasePunycode (map to_lower m)
           | AalOther => if is_ascii_l dbl then MixedCaseAscii dbl else MixedCasePunycode o
           end.
Proof.
  intros HP Ho Hlong. pose proof (pair_out_nodot dbl e o HP Ho) as Hndo. pose proof (pairok_nodot A cfg deny hy dbl e HP) as Hndd.
  destruct HP as [m Han Hn Hacc|m dec dbl Ha Hn Hp Hc Hd Hapd Hchk Hna|dbl Hnv Hg Hchk Hu Hpre]; cbn [out_label] in Ho.
  - (* an all-ASCII input label *)
    inversion Ho. subst o. clear Ho. destruct Han as [Ha Hp].
    assert (Han2 : an_label (map to_lower m)) by (split; [exact (lower_ascii m Ha)|rewrite (hpp_lower m Ha); exact Hp]).
    split; [exact Hndo|]. split; [exact Hndd|]. split; [|split].
    + destruct m as [|b r]; [split; reflexivity|]. cbn [map]. intros db ap.
      change (to_lower b :: map to_lower r) with (map to_lower (b :: r)).
      rewrite (label_nonempty_an A cfg hy deny _ db ap Han2), (lab_acc_lower deny HU HL hy _ Ha), Hacc.
      rewrite (cmap_of_lower deny HU HL _ Ha). reflexivity.
    + cbn [stay_label]. rewrite lower_noupper_b. reflexivity.
    + intros _. unfold lab_acc in Hacc. apply andb_true_iff in Hacc. destruct Hacc as [Hf _]. apply negb_true_iff in Hf.
      rewrite (cmap_lower deny HU m Ha Hf). exact (lower_ascii m Ha).
  - (* an input label xn--... *)
    rewrite Hna in Ho. inversion Ho. subst o. clear Ho.
    pose proof (lower_ascii m Ha) as Ha2. pose proof (hpp_lower m Ha) as Hp2. rewrite Hp in Hp2.
    split; [exact Hndo|]. split; [exact Hndd|]. split; [|split].
    + destruct (xn_prefix_spec m Ha Hp) as (a & b & r & Em & _ & _).
      assert (Hne : exists x y, map to_lower m = x :: y) by (rewrite Em; cbn [map]; eauto).
      destruct Hne as (x & y & Exy). rewrite Exy. rewrite <- Exy. intros db ap.
      rewrite label_nonempty_eq. unfold split_ascii_fast_path_prefix. rewrite (ascii_position _ Ha2). rewrite Hp2.
      assert (Hc2 : negb (match last_opt (map to_lower m) with Some l => l =? HYPHEN | None => false end)
                    && (len (map to_lower m) - 4 <=? PUNYCODE_DECODE_MAX_INPUT_LENGTH) = true).
      { rewrite last_opt_map. unfold len. rewrite map_length. fold (len m). unfold puny_cond in Hc.
        destruct (last_opt m) as [l|]; [|exact Hc]. cbn [option_map]. change HYPHEN with DELIMITER. rewrite to_lower_delim. exact Hc. }
      rewrite Hc2. rewrite skipn_map, decode_u8_lower, Hd. fold dd. rewrite Hapd. cbn [sbind].
      unfold chk in Hchk. rewrite Hchk. reflexivity.
    + cbn [stay_label]. rewrite Hna, lower_noupper_b. reflexivity.
    + intros Hpass. rewrite (prefix_not_pass _ Ha2 Hp2) in Hpass. discriminate.
  - destruct (is_ascii_l dbl) eqn:Easc.
    + (* an ASCII label of the mapped stream *)
      inversion Ho. subst o. clear Ho.
      pose proof (is_ascii_l_spec dbl Easc) as Ha.
      assert (Hcl : Forall (clean deny) dbl).
      { apply Forall_forall. intros c Hin. rewrite Forall_forall in Ha, Hg. exact (gc_clean deny DOT_MASK c (Ha c Hin) (Hg c Hin)). }
      assert (Han : an_label dbl) by (split; [exact Ha|exact (Hpre eq_refl)]).
      assert (Hacc : lab_acc deny hy dbl = true).
      { unfold lab_acc. rewrite (cmap_clean deny dbl Hcl), (clean_nofffd deny dbl Hcl). exact (chk_hyphens A cfg hy dbl Hchk). }
      split; [exact Hndo|]. split; [exact Hndd|]. split; [|split].
      * destruct dbl as [|b r]; [split; reflexivity|]. intros db ap.
        rewrite (label_nonempty_an A cfg hy deny _ db ap Han), Hacc, (cmap_clean deny _ Hcl). reflexivity.
      * cbn [stay_label]. rewrite (clean_noupper dbl Hcl). reflexivity.
      * intros _. exact Ha.
    + (* a non-ASCII label: xn-- and its Punycode form *)
      unfold enc_label in Ho. destruct (encode_internal cfg dbl) as [p| |s] eqn:Ee; try discriminate. inversion Ho. subst o. clear Ho.
      destruct (other_enc dbl p Hg Hchk Hu Easc Ee) as (Hpne & Hplast & Hpnd & Hpcl & Hpdec).
      pose proof (clean_ascii p Hpcl) as Hpa.
      assert (Hoa : Forall (fun b => b < 128) (120 :: 110 :: 45 :: 45 :: p)).
      { repeat (constructor; [lia|]). exact Hpa. }
      assert (Hop : has_punycode_prefix (120 :: 110 :: 45 :: 45 :: p) = true) by (apply xn_prefix_conv; left; reflexivity).
      split; [exact Hndo|]. split; [exact Hndd|]. split; [|split].
      * intros db ap.
        rewrite label_nonempty_eq. unfold split_ascii_fast_path_prefix. rewrite (ascii_position _ Hoa).
        rewrite Hop.
        assert (Hc2 : negb (match last_opt (120 :: 110 :: 45 :: 45 :: p) with Some l => l =? HYPHEN | None => false end)
                      && (len (120 :: 110 :: 45 :: 45 :: p) - 4 <=? PUNYCODE_DECODE_MAX_INPUT_LENGTH) = true).
        { apply andb_true_iff. split.
          - destruct p as [|p0 p']; [contradiction Hpne; reflexivity|].
            change (last_opt (120 :: 110 :: 45 :: 45 :: p0 :: p')) with (last_opt (p0 :: p')).
            destruct (last_opt (p0 :: p')) as [l|]; [|reflexivity]. apply negb_true_iff. apply N.eqb_neq. intros E. apply Hplast. rewrite E. reflexivity.
          - unfold long_puny_label in Hlong. rewrite Hop in Hlong. cbn [andb] in Hlong. apply N.leb_le. apply N.ltb_ge in Hlong. exact Hlong. }
        rewrite Hc2. change (skipn 4 (120 :: 110 :: 45 :: 45 :: p)) with p. rewrite Hpdec. fold dd.
        rewrite (apd_stable A deny dbl Hnv Hg). cbn [sbind]. unfold chk in Hchk. rewrite Hchk. reflexivity.
      * cbn [stay_label]. rewrite Easc. cbn [negb andb].
        replace (existsb is_upper (120 :: 110 :: 45 :: 45 :: p)) with false; [reflexivity|]. symmetry.
        cbn [existsb]. rewrite (clean_noupper p Hpcl). reflexivity.
      * intros Hpass. rewrite (prefix_not_pass _ Hoa Hop) in Hpass. discriminate.
Qed.

Lemma pair_rt dbl e o : PairOK dbl e -> out_label cfg is_ascii_l dbl e = inl o -> long_puny_label o = false ->
  exists e', RT o dbl e'.
Proof. intros HP Ho Hlong. eexists. exact (pair_rt_entry dbl e o HP Ho Hlong). Qed.

Lemma outs_nodot DBL : forall ap os, Forall2 PairOK DBL ap -> outs cfg is_ascii_l DBL ap = inl os ->
  Forall nodot os /\ length os = length DBL.
Proof.
  induction DBL as [|dbl DBL IH]; intros ap os HP Ho.
  - inversion HP; subst. cbn [outs] in Ho. inversion Ho. split; [constructor|reflexivity].
  - inversion HP as [|? e ? ap' H1 H2]; subst. cbn [outs] in Ho.
    destruct (out_label cfg is_ascii_l dbl e) as [o|s] eqn:E1; [|discriminate].
    destruct (outs cfg is_ascii_l DBL ap') as [os'|s] eqn:E2; [|discriminate]. inversion Ho. subst os.
    destruct (IH _ _ H2 E2) as [I1 I2]. split; [constructor; [exact (pair_out_nodot _ _ _ H1 E1)|exact I1]|cbn [length]; lia].
Qed.

Lemma build_T DBL : forall ap os, Forall2 PairOK DBL ap -> outs cfg is_ascii_l DBL ap = inl os ->
  Forall (fun o => long_puny_label o = false) os ->
  exists T, map t_o T = os /\ map t_d T = DBL /\ Forall (RT3 A cfg deny hy) T.
Proof.
  induction DBL as [|dbl DBL IH]; intros ap os HP Ho Hl.
  - inversion HP; subst. cbn [outs] in Ho. inversion Ho. exists []. repeat split. constructor.
  - inversion HP as [|? e ? ap' H1 H2]; subst. cbn [outs] in Ho.
    destruct (out_label cfg is_ascii_l dbl e) as [o|s] eqn:E1; [|discriminate].
    destruct (outs cfg is_ascii_l DBL ap') as [os'|s] eqn:E2; [|discriminate]. inversion Ho. subst os.
    inversion Hl as [|? ? Hl1 Hl2]; subst.
    destruct (IH _ _ H2 E2 Hl2) as (T & T1 & T2 & T3). destruct (pair_rt _ _ _ H1 E1 Hl1) as (e' & Hrt).
    exists ((o, dbl, e') :: T). cbn [map t_o t_d fst snd]. rewrite T1, T2. repeat split. constructor; [exact Hrt|exact T3].
Qed.

(* idempotence, dns length ignored *)
Theorem to_ascii_idem d r : bytes d -> bytes r ->
  to_ascii A cfg d deny hy DIgnore = Ok (false, r) -> Known_C10_long r = false ->
  to_ascii A cfg r deny hy DIgnore = Ok (true, r).
Proof.
  intros Hb Hbr H Hlong.
  destruct (process_inner A cfg true hy deny d) as [ptu bd he db ap|s] eqn:Ei.
  2:{ unfold to_ascii, process in H. rewrite Ei in H. discriminate. }
  destruct (inner_facts A cfg true hy deny d _ _ _ _ _ Hb Ei) as [(_ & -> & -> & Hne)|[(-> & -> & _)|[HB Hm]]].
  - exfalso. unfold to_ascii, process in H. rewrite Ei in H.
    destruct (0 =? len d) eqn:E; [apply len_nil_iff in E; contradiction|]. cbn [andb] in H. discriminate.
  - exfalso. unfold to_ascii, process in H. rewrite Ei, N.eqb_refl, andb_false_r in H. discriminate.
  - assert (Hlt : ptu <> len d) by (destruct HB as [Hx _]; lia).
    destruct he.
    { exfalso. unfold to_ascii, process in H. rewrite Ei in H.
      replace (ptu =? len d) with false in H by (symmetry; apply N.eqb_neq; exact Hlt). cbn [andb] in H. discriminate. }
    pose proof (redisc_of_adapter A cfg deny (ok_nil A HOK) HU) as HR.
    pose proof HB as HB'. destruct HB' as (_ & _ & _ & _ & _ & P & rl & Hd & HP & Hcv & _).
    pose proof (to_ascii_walk A cfg d deny hy ptu bd db ap HR Hm HB P rl Hd HP Hcv) as HW.
    destruct (drun A cfg deny hy HU HL HOK HUSV HNT HNI HNM HMP d ptu bd db ap Hb Ei Hlt)
      as (pl & done & DBL & Hpl & Hdn & Hd2 & Hptu & HD & Hdb & HPK & Hbidi & Hbok).
    assert (HPe : P = ptext pl).
    { apply (app_eq_len P (join_dots rl) (ptext pl) (join_dots done)); [rewrite <- Hd; exact Hd2|rewrite HP; exact Hptu]. }
    pose proof (pairok_all_nodot A cfg deny hy _ _ HPK) as HDn.
    rewrite Hdb, (split_join DBL HD HDn) in HW.
    destruct (outs cfg is_ascii_l DBL ap) as [os|s] eqn:Eo; [|rewrite HW in H; discriminate].
    destruct (stays is_ascii_l DBL ap); [destruct HW as [_ HW]; rewrite HW in H; discriminate|].
    rewrite HW in H. inversion H as [Hr]. clear H HW. rewrite ?Hr.
    destruct (outs_nodot DBL ap os HPK Eo) as [Hosn Hosl].
    assert (Hos : os <> []) by (intros ->; destruct DBL; [contradiction HD; reflexivity|discriminate]).
    assert (Hr2 : r = join_dots (pl ++ os)) by (rewrite <- Hr, HPe; symmetry; apply ptext_join; exact Hos).
    assert (Hsplit : split_on DOT r = pl ++ os).
    { rewrite Hr2. apply split_join; [destruct pl; [exact Hos|discriminate]|].
      apply Forall_app. split; [|exact Hosn]. eapply Forall_impl; [|exact Hpl]. intros l. apply pass_nodot. }
    assert (Hlo : Forall (fun o => long_puny_label o = false) os).
    { unfold Known_C10_long in Hlong. rewrite Hsplit, existsb_app in Hlong. apply orb_false_iff in Hlong. destruct Hlong as [_ Hl2].
      apply Forall_forall. intros o Hin. destruct (long_puny_label o) eqn:E; [|reflexivity]. exfalso.
      assert (Hx : existsb long_puny_label os = true) by (apply existsb_exists; exists o; split; assumption).
      rewrite Hx in Hl2. discriminate. }
    destruct (build_T DBL ap os HPK Eo Hlo) as (T & T1 & T2 & T3).
    apply (rrun A cfg deny hy pl T r bd Hpl); try assumption.
    + intros ->. cbn [map] in T1. symmetry in T1. contradiction.
    + rewrite T1. exact Hr2.
    + rewrite T2, <- Hdb. exact Hbidi.
    + rewrite T2. exact Hbok.
Qed.
End Idem.

Definition C10_idem_statement3 (A : adapter) (cfg : bool) : Prop :=
  AdapterOK A -> AdapterUSV A -> NvNoTrunc A -> NvIdem A -> AsciiNoMark A -> MapPrefix A ->
  forall d deny hy dns b r, bytes d -> valid_deny deny ->
  to_ascii A cfg d deny hy dns = Ok (b, r) -> Known_C10_long r = false ->
  to_ascii A cfg r deny hy dns = Ok (true, r).

Lemma to_ascii_dns_lift A cfg r deny hy dns : to_ascii A cfg r deny hy DIgnore = Ok (true, r) -> is_ascii_l r = true ->
  (dns_is_ignore dns = false -> verify_dns_length r (dns_is_root dns) = true) -> to_ascii A cfg r deny hy dns = Ok (true, r).
Proof.
  unfold to_ascii. destruct (process A cfg true never_unicode r deny hy None None false) as [[st s1] s2].
  destruct st; cbn [dns_is_ignore negb]; intros H Ha Hv; try discriminate.
  destruct (dns_is_ignore dns); cbn [negb]; [reflexivity|]. rewrite Ha, (Hv eq_refl). cbn [negb]. rewrite andb_false_r. reflexivity.
Qed.

Theorem c10_idem3 : forall A cfg, C10_idem_statement3 A cfg.
Proof.
  intros A cfg HOK HUSV HNT HNI HNM HMP d deny hy dns b r Hb Hv H Hlong.
  destruct (valid_deny_facts deny Hv) as [HU HL].
  pose proof (to_ascii_output A cfg d deny hy dns b r HNT Hb Hv H) as Hout.
  assert (Hra : Forall (fun c => c < 128) r) by (eapply Forall_impl; [|exact Hout]; intros c Hc; exact (proj1 Hc)).
  assert (Hbr : bytes r) by (unfold bytes; eapply Forall_impl; [|exact Hra]; unfold is_byte; cbv beta; intros; lia).
  apply to_ascii_dns_lift.
  - pose proof (to_ascii_dns_ignore A cfg d deny hy dns b r H) as H'. destruct b.
    + pose proof (to_ascii_borrow A cfg d deny hy DIgnore r H') as ->. exact H'.
    + exact (to_ascii_idem A cfg deny hy HU HL HOK HUSV HNT HNI HNM HMP d r Hb Hbr H' Hlong).
  - exact (is_ascii_l_intro r Hra).
  - intros Hn. exact (to_ascii_dns A cfg d deny hy dns b r H Hn).
Qed.
