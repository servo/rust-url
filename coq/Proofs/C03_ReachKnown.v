(* Proofs/C03_ReachKnown.v - histories whose exclusions are ONLY the known findings.
   excl03k = excl03 without the auth_end_b member.  reach03k: Url::parse (no base) of a text with a scheme other
   than "file", or a file-path constructor, followed by any sequence of calls of the 19 mutators that leave the
   record unchanged or are outside excl03k.  It lies inside reach03j (Proofs/C03_ReachJoin.v), whose invariant inv03
   gives wfh, HE (hence auth_end_ok: the member of excl03 that is not a known finding never applies) and PN of every
   such record: Proofs/C03_ReachFin.v. *)
From RU Require Import Base.Prelude Base.Utf8 Model.HostT Model.UrlRecord Model.Parser Model.Setters Model.WF Model.FilePath
  Proofs.ListN Proofs.C03_WF Proofs.C02_Reach Proofs.C02_AuthParts Proofs.C02_AuthMain
  Proofs.C06_WFI Proofs.C06_FragQuery Proofs.C06_Path
  Proofs.C03_ReachParts Proofs.C03_ReachHost Proofs.C03_ReachAll Proofs.C03_Reachability
  Proofs.C03_PortParse Proofs.C03_AuthEnd Proofs.C20_RT.
Open Scope N_scope.
Open Scope list_scope.

Definition excl03k (u : url) (o : op) (u' : url) : bool :=
  match o with
  | OSetPath p => (is_opaque_b u && negb (forallb no_qh p)) || path_bad u u'
  | OQPathname _ => path_bad u u'
  | _ => excl03 u o u'
  end.

Lemma excl03k_excl03 u o u' : auth_end_ok u -> excl03k u o u' = false -> excl03 u o u' = false.
Proof.
  intros Hx G. apply auth_end_b_ok in Hx. destruct o; cbn [excl03 excl03k] in *; try exact G; rewrite Hx; exact G.
Qed.

Definition known03k (u : url) (o : op) (u' : url) : bool := negb (url_eqb u' u) && excl03k u o u'.

Lemma known03k_known03 u o u' : auth_end_ok u -> known03k u o u' = false -> known03 u o u' = false.
Proof.
  unfold known03k, known03. intros Hx G. apply andb_false_iff in G. destruct G as [G|G]; [rewrite G; reflexivity|].
  rewrite (excl03k_excl03 u o u' Hx G). apply andb_false_r.
Qed.

(* the file records have no host *)
Lemma file_rec_he P : wf_b (file_rec P) = true -> HE (file_rec P).
Proof.
  intros W sch Hs Hsp. rewrite (scheme_text03 _ W) in Hs. inversion Hs; subst sch.
  split; [intros t Et; discriminate Et | intros X; discriminate X].
Qed.

Section Reach.
Variable dbg : bool.
Variable hp hpo : list N -> result host.
Variable hd : host -> list N.

Inductive reach03k : url -> Prop :=
| RK_parse input u : usv_list input -> nonfile_input input = true ->
    parse_url dbg hp hpo hd None None input = POk u -> reach03k u
| RK_file p u : bytes p -> from_file_path p = FOk u -> reach03k u
| RK_dir p u : bytes p -> from_directory_path p = FOk u -> reach03k u
| RK_step u o u' :
    reach03k u -> op_args_ok o -> known03k u o u' = false -> apply_op dbg hp hpo hd u o = Some u' -> reach03k u'.
End Reach.

(* the hypotheses are met; a history through the special-scheme path setter *)
From Coq Require Import String.
From RU Require Import Proofs.C03_ReachEx.
Open Scope string_scope.

(* Host::parse fails on the empty text (EmptyHost); Host::parse_opaque returns the empty host *)
Definition ex_hp3 (s : list N) : result host := match s with [] => Err EmptyHost | _ => ex_hp s end.

Lemma ex3_hyps : (HostRT ex_hp3 ex_hp ex_hd2 /\ host_above ex_hp3 ex_hp ex_hd2) /\ NoEmpty ex_hp3 /\ IpWf ex_hd2.
Proof.
  destruct ex2_host_RT as [(A & B0 & C & D) (E & F)].
  assert (forall s h, ex_hp3 s = Ok h -> ex_hp s = Ok h /\ s <> []) as X.
  { intros s h H. destruct s as [|c r]; [discriminate|]. split; [exact H | discriminate]. }
  split; [split; [split; [|split; [exact B0 | split; [exact C | exact D]]] | split; [|exact F]]|split].
  - intros s h H Hne. destruct (X s h H) as [H' _]. destruct (A s h H' Hne) as [T R]. split; [exact T|].
    destruct (ex_hd2 h) as [|c r] eqn:Ed; [destruct T as (_ & T2 & _); contradiction | exact R].
  - intros s h H. exact (E s h (proj1 (X s h H))).
  - intros s H. destruct (X s _ H) as [H' Hs]. destruct s as [|c r]; [contradiction|].
    unfold ex_hp in H'. destruct (forallb ex_hostc (c :: r)); discriminate.
  - intros h Hh. destruct h as [d|a|p]; cbn in Hh; [contradiction | |]; cbn [ex_hd2];
      (split; [discriminate|]); (split; [discriminate|]); (split; [discriminate | reflexivity]).
Qed.

(* parse "http://h:81/p?q"; set_path "x/../y" (the special-scheme path setter: auth_end_ok is used);
   quirks set_host "g:443" (stored: not the default of http); set_scheme "https" (443 is its default: dropped) *)
Definition reach03k_example_stmt : Prop :=
  exists u, reach03k true ex_hp3 ex_hp ex_hd2 u /\ ser u = B "https://g/y?q".

Lemma reach03k_example : reach03k_example_stmt.
Proof.
  destruct (parse_url true ex_hp3 ex_hp ex_hd2 None None (B "http://h:81/p?q")) as [u0| |] eqn:E0;
    [|vm_compute in E0; discriminate ..].
  assert (reach03k true ex_hp3 ex_hp ex_hd2 u0) as R0
    by (apply (RK_parse true ex_hp3 ex_hp ex_hd2 (B "http://h:81/p?q") u0); [usv_tac | vm_compute; reflexivity | exact E0]).
  vm_compute in E0. injection E0 as <-.
  hist_step RK_step (OSetPath (B "x/../y")) usv_tac.
  hist_step RK_step (OQHost (B "g:443")) usv_tac.
  hist_step RK_step (OSetScheme (B "https")) usv_tac.
  match goal with R : reach03k _ _ _ _ ?u |- _ => exists u end.
  split; [assumption | vm_compute; reflexivity].
Qed.
