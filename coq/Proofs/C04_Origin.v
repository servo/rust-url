(* Proofs/C04_Origin.v - Url::origin() / origin::url_origin / quirks::origin: the panic outcome of the model, EXACTLY.
   url_origin panics (url.host().unwrap()) iff the receiver itself has one of the five tuple schemes and no host -
   a record the parser never produces (a special URL always gets a host: special_has_host below) and wf_b allows.
   The URLs met in the blob recursion are parse results, hence never in that class; the parser without base never
   panics (C04_Chain).  Hypothesis: HostWf (so that parse results satisfy wf_b: C03_Reach).
   The model's recursion is bounded by fuel (C16_fuel); the Rust recursion is on the machine stack: finding F-C04-11
   (stack overflow at ~36000 levels) is outside what a panic outcome can express - see the cost statement. *)
From RU Require Import Base.Prelude Base.Utf8 Model.AsciiSet Gen.Tables Model.PercentEncoding
  Model.HostT Model.UrlRecord Model.Parser Model.Setters Model.WF Model.Origin
  Proofs.ListN Proofs.C03_WF Proofs.C06_List Proofs.C06_Main Proofs.C04_ParseTotal Proofs.C03_ReachParts Proofs.C03_Reach
  Proofs.C03_ReachFile Proofs.C16_Conc Proofs.C16_Origin Proofs.C16_Colons Proofs.C16_RT Proofs.C16_RTParsed
  Proofs.C04_Chain.
From RU Require Properties.C03.

Lemma new_opaque_no_panic c : new_opaque c <> OPanic.
Proof.
  unfold new_opaque. rewrite counter_table_ok. cbn [solo_schedule run step]. discriminate.
Qed.

Section Origin.
Variable dbg : bool.
Variable hp ho : list N -> result host.
Variable hd : host -> list N.

(* a special scheme never gets the empty host *)
Lemma phap_special_host ctx st se ser l ser2 he hi port rem :
  parse_host_and_port hp ho hd ctx st se ser l = POk (ser2, he, hi, port, rem) ->
  st_is_special st = true -> hi <> HI_None.
Proof.
  unfold parse_host_and_port. intros H Hs. pbi H a Ha. destruct a as [hst remaining]. cbv zeta in H.
  pbi H he0 Hhe. pbi H u0 Hu0.
  assert (hi = hi_of_host hst) as ->.
  { destruct (inp_split_prefix_char 58 remaining) as [rem1|].
    - pbi H b Hb. destruct b as [port0 rem2]. inversion H; reflexivity.
    - inversion H; reflexivity. }
  destruct hst as [[|c d]|a|a]; cbn [hi_of_host]; try discriminate.
  rewrite Hs in Hu0. destruct (inp_starts_with_char 58 remaining); discriminate.
Qed.

Lemma after_double_slash_special ovr ctx st se ser l u :
  after_double_slash dbg hp ho hd ovr ctx st se ser l = POk u -> st_is_special st = true -> hosti u <> HI_None.
Proof.
  unfold after_double_slash. cbv zeta. intros H Hs.
  pbi H a Ha. destruct a as [[ser1 ue] remaining]. pbi H hs Hhs. pbi H b Hb. destruct b as [[[[ser2 he] hi] port] remaining2].
  apply phap_special_host in Hb; [|exact Hs].
  match type of H with (if ?c then _ else _) = _ => destruct c; [discriminate|] end.
  pbi H ps Hps. pbi H c Hc. destruct c as [[ser3 hh3] remaining3].
  apply wqf_fields in H. destruct H as (F1 & _). rewrite F1. exact Hb.
Qed.

Lemma parse_with_scheme_special ovr sch l u :
  parse_with_scheme dbg hp ho hd ovr None sch l = POk u -> scheme_type_of sch = STSpecialNotFile -> hosti u <> HI_None.
Proof.
  unfold parse_with_scheme. intros H Est. pbi H se Hse. cbv zeta in H. rewrite Est in H.
  destruct (inp_count_matching is_slash_or_bslash l) as [sl rem].
  exact (after_double_slash_special _ _ _ _ _ _ _ H eq_refl).
Qed.

(* the class: one of the five schemes and no host *)
Definition tuple_no_host_b (u : url) : bool :=
  match scheme u with
  | Some s => str_mem s five_schemes && negb (has_host u)
  | None => false
  end.
Definition tuple_no_host (u : url) : Prop :=
  exists s, scheme u = Some s /\ In s five_schemes /\ hosti u = HI_None.

Lemma tuple_no_host_spec u : tuple_no_host_b u = true <-> tuple_no_host u.
Proof.
  unfold tuple_no_host_b, tuple_no_host, has_host. split.
  - destruct (scheme u) as [s|]; [|discriminate]. intros H. apply andb_true_iff in H. destruct H as [H5 Hh].
    exists s. split; [reflexivity|]. split; [apply str_mem_spec; exact H5|]. destruct (hosti u); try discriminate. reflexivity.
  - intros (s & -> & H5 & ->). apply str_mem_spec in H5. rewrite H5. reflexivity.
Qed.

Lemma url_parse_has_host p v : url_parse dbg hp ho hd p = POk v -> ~ tuple_no_host v.
Proof.
  unfold url_parse, parse_url. cbv zeta. intros H (s & Hs & H5 & Hn).
  destruct (parse_scheme CUrlParser (input_new_trim_c0 (str_chars p))) as [[sch remaining]|]; [|discriminate].
  destruct (parse_with_scheme_shape dbg hp ho hd _ _ _ _ H) as [S1 _].
  rewrite (S1 s Hs) in H5. exact (parse_with_scheme_special _ _ _ _ H (five_special sch H5) Hn).
Qed.

Hypothesis HW : HostWf hp ho hd.

Lemma url_parse_wf p v : url_parse dbg hp ho hd p = POk v -> wf_b v = true.
Proof. intros H. exact (proj1 (parse_url_wf_all dbg hp ho hd None HW None (str_chars p) v I H)). Qed.

Lemma url_parse_no_panic p : url_parse dbg hp ho hd p <> PPanic.
Proof. exact (parse_no_base_no_panic dbg hp ho hd None (str_chars p)). Qed.

(* the arm of the five tuple schemes: url.host().unwrap() and the port *)
Lemma tuple_arm_no_panic c u : wf_b u = true -> ~ tuple_no_host u ->
  let s := piece u (pidx u BeforeScheme) (pidx u AfterScheme) in
  (if str_mem s five_schemes
   then match host_of u with
        | Some (Some h) => match port_or_known_default u with Some (Some p) => OOk (Tuple s h p) c | _ => OPanic end
        | _ => OPanic
        end
   else new_opaque c) <> OPanic.
Proof.
  intros W Hn s. destruct (str_mem s five_schemes) eqn:E5; [|apply new_opaque_no_panic].
  apply str_mem_spec in E5.
  assert (Hh : has_host u = true).
  { unfold has_host. destruct (hosti u) eqn:Eh; try reflexivity. exfalso. apply Hn. exists s. split; [apply scheme_eval; exact W|]. tauto. }
  destruct (proj1 (proj1 (proj2 (C03.C03_views dbg u W))) Hh) as [h Eh].
  destruct (tuple_arm dbg hp ho hd 0 c u s h (scheme_eval u W) E5 Eh) as (p & Ep & _). rewrite Eh, Ep. discriminate.
Qed.

Lemma origin_fuel_no_panic f : forall c u, wf_b u = true -> ~ tuple_no_host u ->
  url_origin_fuel dbg hp ho hd f c u <> OPanic.
Proof.
  induction f as [|f IH]; intros c u W Hn; rewrite uof_unfold; rewrite (scheme_eval u W), blob_table, tuple_table;
    (destruct (list_eqb _ s_blob); [rewrite (path_eval u W) | exact (tuple_arm_no_panic c u W Hn)]);
    pose proof (url_parse_no_panic (piece u (pidx u BeforePath) (pidx u AfterPath))) as Hp.
  - destruct (url_parse dbg hp ho hd _) as [v|e|]; [discriminate | apply new_opaque_no_panic | congruence].
  - destruct (url_parse dbg hp ho hd _) as [v|e|] eqn:Ev; [|apply new_opaque_no_panic | congruence].
    apply IH; [exact (url_parse_wf _ v Ev) | exact (url_parse_has_host _ v Ev)].
Qed.

(* EXACTLY: on a well-formed record, origin() panics iff the record has a tuple scheme and no host *)
Theorem url_origin_panic_iff c u : wf_b u = true ->
  (url_origin dbg hp ho hd c u = OPanic <-> tuple_no_host u).
Proof.
  intros W. split.
  - intros H. destruct (tuple_no_host_b u) eqn:E; [apply tuple_no_host_spec; exact E|]. exfalso.
    refine (origin_fuel_no_panic _ c u W _ H). intros Y. apply tuple_no_host_spec in Y. congruence.
  - intros (s & Hs & H5 & Hn). apply (tuple_arm_no_host dbg hp ho hd _ c u s Hs H5). unfold host_of. rewrite Hn. reflexivity.
Qed.

(* the origin of every parse result (and of every URL reached from it through the blob recursion) *)
Theorem url_origin_parsed_no_panic c p v : url_parse dbg hp ho hd p = POk v -> url_origin dbg hp ho hd c v <> OPanic.
Proof. intros H. apply origin_fuel_no_panic; [exact (url_parse_wf p v H) | exact (url_parse_has_host p v H)]. Qed.
End Origin.
