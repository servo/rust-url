(* Proofs/C08_NoAuth.v - containment for a base without authority ("scheme:/path", possibly with the
   "/." marker): with_query_and_fragment may insert or remove the marker, so path_start can move by 2;
   there are no credentials, host or port to protect.  Preserved: "scheme:/" byte for byte, the six
   offsets / host kind / port in front of the path, and the five front accessors. *)
From RU Require Import Base.Prelude Base.Utf8 Base.Utf8Facts Model.AsciiSet Gen.Tables Model.PercentEncoding
  Model.HostT Model.UrlRecord Model.Parser Model.Setters Model.WF Model.KnownC08
  Proofs.ListN Proofs.C14_Enc Proofs.C02_Enc Proofs.C02_Parts Proofs.C02_Opaque Proofs.C03_WF Proofs.C06_List
  Proofs.C06_WFI Proofs.C06_Tail Proofs.C06_Steps Proofs.C06_FragQuery Proofs.C06_Suffix Proofs.C06_Front
  Proofs.C06_PathParser Proofs.C06_Path Proofs.C05_Parser Proofs.C08_Input Proofs.C08_Simple Proofs.C08_Contain.

Lemma nfirstn_succ l i x : nnth l i = Some x -> nfirstn (i + 1) l = nfirstn i l ++ [x].
Proof.
  intros H. unfold nfirstn at 1. rewrite N2Nat.inj_add. rewrite firstn_add_nat. fold (nfirstn i l).
  f_equal. exact (piece_one l i x H).
Qed.

Lemma nfirstn_app_succ a x r : nfirstn (nlen a + 1) (a ++ x :: r) = a ++ [x].
Proof.
  rewrite (nfirstn_succ _ (nlen a) x).
  - rewrite nfirstn_app_exact. reflexivity.
  - rewrite nnth_app_ge by lia. rewrite N.sub_diag. reflexivity.
Qed.

(* the front accessors of a record "scheme:/..." without authority offsets *)
Lemma noauth_front_eval dbg u :
  nnth (ser u) (scheme_end u) = Some 58 -> nnth (ser u) (scheme_end u + 1) = Some 47 ->
  username_end u = scheme_end u + 1 -> hosti u = HI_None ->
  scheme u = Some (nfirstn (scheme_end u) (ser u)) /\ username dbg u = Some [] /\ password dbg u = Some None
  /\ host_str u = Some None.
Proof.
  intros H58 H47 Eue Ehi.
  pose proof (nnth_lt _ _ _ H58) as L1. pose proof (nnth_lt _ _ _ H47) as L2.
  assert (has_authority dbg u = Some (starts_with s_css (nskipn (scheme_end u) (ser u)))) as Hha.
  { unfold has_authority, byte_is, byte_at. rewrite H58. cbn [bindo N.eqb Pos.eqb assert_o].
    unfold u_slice_from. rewrite slice_from_o_some by lia. destruct dbg; reflexivity. }
  split; [unfold scheme, u_slice_to; apply slice_to_o_some; lia|].
  split.
  - unfold username. rewrite Hha. cbn [bindo]. rewrite Eue.
    replace (scheme_end u + 3 <? scheme_end u + 1) with false by lia. rewrite andb_false_r. reflexivity.
  - split.
    + unfold password. rewrite Hha. cbn [bindo].
      destruct (starts_with s_css (nskipn (scheme_end u) (ser u)) && negb (username_end u =? nlen (ser u))); [|reflexivity].
      unfold byte_is, byte_at. rewrite Eue, H47. reflexivity.
    + unfold host_str, has_host. rewrite Ehi. reflexivity.
Qed.

Section NoAuth.
Variables (dbg : bool) (hp hpo : list N -> result host) (hd : host -> list N).
Notation join b input := (parse_url dbg hp hpo hd None (Some b) input).

Definition contained_na (b u' : url) : Prop :=
  scheme_end u' = scheme_end b /\ username_end u' = username_end b /\ host_start u' = host_start b
  /\ host_end u' = host_end b /\ hosti u' = hosti b /\ port u' = port b
  /\ agree_pre (scheme_end b + 2) (ser b) (ser u').

Lemma wqf_noauth b st s rem u' : wf_b b = true -> has_authority_b b = false ->
  byte_eqb (ser b) (scheme_end b + 1) 47 = true ->
  PInv (path_start b) (path_start b + 1) (nfirstn (path_start b) (ser b) ++ [47]) s ->
  usv_list rem ->
  with_query_and_fragment None CUrlParser st (scheme_end b) (username_end b) (host_start b) (host_end b)
    (hosti b) (port b) (path_start b) s rem = POk u' ->
  contained_na b u'.
Proof.
  intros W Ha B47 I Hrem H.
  pose proof (wf_noauth_facts b W Ha) as F. pose proof (nf_ps F) as Hps.
  destruct (wf_scheme_facts b W) as (_ & B58 & Lse).
  apply byte_eqb_nnth in B58. apply byte_eqb_nnth in B47.
  pose proof (path_start_le_len b W) as B5.
  set (ps := path_start b) in *. set (se := scheme_end b) in *.
  assert (nlen (nfirstn ps (ser b)) = ps) as Lp by (apply nlen_nfirstn; exact B5).
  assert (nlen (nfirstn ps (ser b) ++ [47]) = ps + 1) as Lpre by (rewrite nlen_app, Lp; reflexivity).
  pose proof (pinv_len ps (ps + 1) _ ltac:(lia) ltac:(lia) Lpre s I) as Ls.
  destruct I as [I1 I2].
  assert (nfirstn ps s = nfirstn ps (ser b)) as Hpre.
  { rewrite <- (nfirstn_nfirstn ps (ps + 1) s) by lia. rewrite I1. rewrite nfirstn_app_le by lia.
    apply nfirstn_all. lia. }
  assert (nnth s ps = Some 47) as Hn.
  { rewrite <- (pre_nnth (ps + 1) s (nfirstn (ps + 1) s) ps) by (try apply agree_pre_trunc; lia).
    rewrite I1. rewrite nnth_app_ge by lia. rewrite Lp, N.sub_diag. reflexivity. }
  assert (nfirstn (se + 2) (ser b) = nfirstn se (ser b) ++ [58; 47]) as Eb.
  { replace (se + 2) with (se + 1 + 1) by lia. rewrite (nfirstn_succ _ (se + 1) 47 B47), (nfirstn_succ _ se 58 B58).
    rewrite <- app_assoc. reflexivity. }
  (* the serialization the marker repair hands on (C05_Parser.marker_fix: untouched, "/." put in, "/." taken out) *)
  destruct (with_query_and_fragment_steps None _ _ _ _ _ _ _ _ _ _ _ _ H) as (s1 & ps1 & s2 & qs & fs & M & Epqf & ->).
  clear H. fold ps se in M, Epqf.
  assert (nfirstn (se + 2) s = nfirstn (se + 2) (ser b)) as As.
  { destruct Hps as [Eps|(Eps & _)].
    - replace (se + 2) with (ps + 1) by lia. rewrite I1. replace (ps + 1) with (se + 1 + 1) by lia.
      rewrite (nfirstn_succ _ (se + 1) 47 B47). rewrite Eps. reflexivity.
    - rewrite <- (nfirstn_nfirstn (se + 2) ps s), <- (nfirstn_nfirstn (se + 2) ps (ser b)) by lia.
      rewrite Hpre. reflexivity. }
  assert (nfirstn (se + 2) s1 = nfirstn (se + 2) (ser b) /\ se + 2 <= nlen s1) as [A L].
  { destruct M as [|Eps Ess|Eps Em Hm].
    - split; [exact As | destruct Hps as [Eps|(Eps & _)]; lia].
    - (* "/." goes in between "scheme:" and the path *)
      assert (nlen (nfirstn ps s) = ps) as Lps by (apply nlen_nfirstn; lia).
      replace (se + 2) with (nlen (nfirstn ps s) + 1) by lia. cbn [app]. split.
      + rewrite nfirstn_app_succ. rewrite Lps. rewrite Hpre. replace (ps + 1) with (se + 1 + 1) by lia.
        rewrite (nfirstn_succ _ (se + 1) 47 B47). replace (se + 1) with ps by lia. reflexivity.
      + rewrite nlen_app, nlen_cons. lia.
    - (* "/." comes out: "scheme:" and then the path, which starts with '/' *)
      pose proof (piece_one s ps 47 Hn) as Hone.
      destruct (nskipn ps s) as [|x P'] eqn:Esk; [discriminate|].
      unfold nfirstn in Hone. change (N.to_nat 1) with 1%nat in Hone. cbn [firstn] in Hone. inversion Hone; subst x.
      assert (nlen (nfirstn se s) = se) as Lses by (apply nlen_nfirstn; lia).
      assert (nfirstn se s = nfirstn se (ser b)) as Ese.
      { rewrite <- (nfirstn_nfirstn se ps s), <- (nfirstn_nfirstn se ps (ser b)) by lia. rewrite Hpre. reflexivity. }
      cbn [app]. split.
      + rewrite Eb, <- Ese.
        replace (se + 2) with (nlen (nfirstn se s ++ [58; 47]))
          by (rewrite nlen_app, Lses; change (nlen [58; 47]) with 2; reflexivity).
        change (nfirstn se s ++ 58 :: 47 :: P') with (nfirstn se s ++ [58; 47] ++ P'). rewrite app_assoc.
        apply nfirstn_app_exact.
      + rewrite nlen_app, Lses, !nlen_cons. lia. }
  destruct (pqf_out None st se s1 rem s2 qs fs Hrem eq_refl Epqf) as (Es & _).
  unfold contained_na. cbn [scheme_end username_end host_start host_end hosti port ser].
  repeat split. unfold agree_pre. rewrite Es. rewrite nfirstn_app_le by exact L. exact A.
Qed.

Lemma noauth_cbb_byte b : wf_b b = true -> cannot_be_a_base b = Some false ->
  byte_eqb (ser b) (scheme_end b + 1) 47 = true.
Proof.
  intros W Hc. rewrite (cannot_be_a_base_eval b W) in Hc. inversion Hc as [E].
  destruct (byte_eqb (ser b) (scheme_end b + 1) 47); [reflexivity | discriminate].
Qed.

(* the first byte of the path of an authority-less base that can be a base is '/', and the path is not empty *)
Lemma noauth_path_byte b : wf_b b = true -> has_authority_b b = false -> cannot_be_a_base b = Some false ->
  byte_eqb (ser b) (path_start b) 47 = true /\ scheme_end b + 1 <= path_start b.
Proof.
  intros W Ha Hc. pose proof (noauth_cbb_byte b W Hc) as B47.
  pose proof (wf_noauth_facts b W Ha) as F. destruct (nf_ps F) as [E|(E & _ & _ & SS)].
  - rewrite E. split; [exact B47 | lia].
  - apply ss_bytes in SS. destruct SS as [S1 _]. split; [apply byte_eqb_true_iff; exact S1 | lia].
Qed.

Lemma path_byte_before_query b : wf_b b = true -> byte_eqb (ser b) (path_start b) 47 = true ->
  byte_eqb (b_before_query b) (path_start b) 47 = true /\ path_start b + 1 <= nlen (b_before_query b).
Proof.
  intros W B. pose proof (wf_qf_facts b W) as QF. pose proof (qf_q QF) as Q1. pose proof (qf_f QF) as Q2.
  pose proof (byte_eqb_lt _ _ _ B) as L. apply byte_eqb_nnth in B.
  unfold b_before_query.
  assert (forall k, path_start b <= k -> k <= nlen (ser b) -> nnth (ser b) k <> Some 47 \/ k = nlen (ser b) ->
            (k = nlen (ser b) \/ path_start b < k) ->
            byte_eqb (nfirstn k (ser b)) (path_start b) 47 = true /\ path_start b + 1 <= nlen (nfirstn k (ser b))) as K.
  { intros k H1 H2 _ H4. assert (path_start b < k) as Hlt by lia.
    split; [|rewrite nlen_nfirstn by lia; lia].
    apply byte_eqb_true_iff. rewrite (pre_nnth k (ser b) (nfirstn k (ser b))) by (try apply agree_pre_trunc; lia). exact B. }
  destruct (query_start b) as [q|].
  - destruct Q1 as (A1 & A2 & A3). apply byte_eqb_nnth in A2.
    apply K; try lia; [left; congruence|]. right. destruct (N.eq_dec q (path_start b)); [subst; congruence | lia].
  - destruct (fragment_start b) as [f|].
    + destruct Q2 as (A1 & A2 & A3). apply byte_eqb_nnth in A2.
      apply K; try lia; [left; congruence|]. right. destruct (N.eq_dec f (path_start b)); [subst; congruence | lia].
    + split; [apply byte_eqb_true_iff; exact B | lia].
Qed.

Lemma before_fragment_is_prefix b : wf_b b = true ->
  nfirstn (nlen (b_before_fragment b)) (ser b) = b_before_fragment b.
Proof.
  intros W. pose proof (qf_f (wf_qf_facts b W)) as Q2. unfold b_before_fragment.
  destruct (fragment_start b) as [f|]; [rewrite nlen_nfirstn by lia; reflexivity | apply nfirstn_all; lia].
Qed.

Lemma before_query_is_prefix b : wf_b b = true ->
  nfirstn (nlen (b_before_query b)) (ser b) = b_before_query b.
Proof.
  intros W. pose proof (qf_f (wf_qf_facts b W)) as Q2. pose proof (qf_q (wf_qf_facts b W)) as Q1. unfold b_before_query.
  destruct (query_start b) as [q|]; [rewrite nlen_nfirstn by lia; reflexivity|].
  destruct (fragment_start b) as [f|]; [rewrite nlen_nfirstn by lia; reflexivity | apply nfirstn_all; lia].
Qed.

Lemma contained_na_front b u' : wf_b b = true -> has_authority_b b = false ->
  byte_eqb (ser b) (scheme_end b + 1) 47 = true -> contained_na b u' -> same_front dbg b u'.
Proof.
  intros W Ha B47 (E1 & E2 & E3 & E4 & E5 & E6 & A).
  pose proof (wf_noauth_facts b W Ha) as F. destruct (wf_scheme_facts b W) as (_ & B58 & _).
  apply byte_eqb_nnth in B58. apply byte_eqb_nnth in B47.
  destruct (noauth_front_eval dbg b B58 B47 (nf_ue F) (nf_host F)) as (S1 & S2 & S3 & S4).
  assert (nnth (ser u') (scheme_end u') = Some 58) as B58'.
  { rewrite E1. rewrite (pre_nnth _ _ _ (scheme_end b) A) by lia. exact B58. }
  assert (nnth (ser u') (scheme_end u' + 1) = Some 47) as B47'.
  { rewrite E1. rewrite (pre_nnth _ _ _ (scheme_end b + 1) A) by lia. exact B47. }
  destruct (noauth_front_eval dbg u' B58' B47' ltac:(rewrite E2, E1; exact (nf_ue F)) ltac:(rewrite E5; exact (nf_host F)))
    as (T1 & T2 & T3 & T4).
  unfold same_front. rewrite S1, S2, S3, S4, T1, T2, T3, T4, E1, E6.
  repeat split. f_equal.
  rewrite <- (nfirstn_nfirstn (scheme_end b) (scheme_end b + 2) (ser u')), <- (nfirstn_nfirstn (scheme_end b) (scheme_end b + 2) (ser b)) by lia.
  unfold agree_pre in A. rewrite A. reflexivity.
Qed.

Lemma main_contained_na b u' k : wf_b b = true -> same_main b u' -> agree_pre k (ser b) (ser u') -> scheme_end b + 2 <= k ->
  contained_na b u'.
Proof.
  intros W (E1 & E2 & E3 & E4 & E5 & E6 & E7) A Hk. unfold contained_na.
  repeat split; try assumption. apply (agree_pre_le k); assumption.
Qed.

Theorem contain_noauth b input u' :
  wf_b b = true -> has_authority_b b = false -> cannot_be_a_base b = Some false -> st_is_file (b_st b) = false ->
  usv_list input -> contain_pre b input = true ->
  join b input = POk u' ->
  contained_na b u' /\ same_front dbg b u'.
Proof.
  intros W Ha Hc Hnf Hu Hcp H.
  pose proof (noauth_cbb_byte b W Hc) as B47.
  enough (contained_na b u') as C by (split; [exact C | apply contained_na_front; assumption]).
  revert H.
  destruct (noauth_path_byte b W Ha Hc) as [BP Lps].
  destruct (path_byte_before_query b W BP) as [BQ LQ].
  assert (scheme_end b + 2 <= nlen (b_before_fragment b)) as LF.
  { pose proof (wf_qf_facts b W) as QF. pose proof (qf_qf QF) as Q3. pose proof (qf_f QF) as Q2. pose proof (qf_q QF) as Q1.
    unfold b_before_fragment, b_before_query in *.
    destruct (query_start b) as [q|], (fragment_start b) as [f|]; rewrite ?nlen_nfirstn in * by lia; lia. }
  apply (join_nonfile_cases dbg hp hpo hd (contained_na b)); try assumption.
  - intros _. exact BQ.
  - destruct (without_fragment_spec dbg b W) as (W1 & SF1 & SM1 & _ & _ & _ & _ & _ & Es1).
    apply (main_contained_na b _ (nlen (b_before_fragment b)) W SM1); [|lia].
    unfold agree_pre. rewrite Es1. rewrite nfirstn_all by lia. symmetry. apply before_fragment_is_prefix. exact W.
  - intros x. destruct (with_fragment_spec dbg b x W) as (W1 & SF1 & SM1 & _ & _ & _ & Es1).
    apply (main_contained_na b _ (nlen (b_before_fragment b)) W SM1); [|lia].
    unfold agree_pre. rewrite Es1. rewrite nfirstn_app_exact. symmetry. apply before_fragment_is_prefix. exact W.
  - intros Q F HQ. destruct (with_query_spec dbg hp hpo b Q F W HQ) as (W1 & SF1 & SM1 & _).
    apply (main_contained_na b _ (nlen (b_before_query b)) W SM1); [|lia].
    unfold agree_pre, with_query, url_with. cbn [ser]. rewrite nfirstn_app_exact. symmetry.
    apply before_query_is_prefix. exact W.
  - intros s rem v I Hrem H. exact (wqf_noauth b (b_st b) s rem v W Ha B47 I Hrem H).
Qed.

End NoAuth.

(* both cases together: every base that can be a base and is not a file URL *)
Definition contained (dbg : bool) (b u' : url) : Prop :=
  scheme_end u' = scheme_end b /\ username_end u' = username_end b /\ host_start u' = host_start b
  /\ host_end u' = host_end b /\ hosti u' = hosti b /\ port u' = port b
  /\ same_front dbg b u'
  /\ (if has_authority_b b
      then path_start u' = path_start b /\ agree_pre (path_start b) (ser b) (ser u') /\ wf_b u' = true
      else agree_pre (scheme_end b + 2) (ser b) (ser u')).

Theorem contain_nonfile dbg hp hpo hd b input u' :
  wf_b b = true -> cannot_be_a_base b = Some false -> st_is_file (b_st b) = false ->
  usv_list input -> contain_pre b input = true ->
  parse_url dbg hp hpo hd None (Some b) input = POk u' -> contained dbg b u'.
Proof.
  intros W Hc Hnf Hu Hcp H. unfold contained. destruct (has_authority_b b) eqn:Ha.
  - destruct (contain_auth dbg hp hpo hd b input u' W Ha Hnf Hu Hcp H) as (W' & SF & (E1 & E2 & E3 & E4 & E5 & E6 & E7) & A).
    split; [exact E1|]. split; [exact E2|]. split; [exact E3|]. split; [exact E4|]. split; [exact E5|]. split; [exact E6|].
    split; [exact SF|]. split; [exact E7|]. split; [exact A | exact W'].
  - destruct (contain_noauth dbg hp hpo hd b input u' W Ha Hc Hnf Hu Hcp H) as ((E1 & E2 & E3 & E4 & E5 & E6 & A) & SF).
    split; [exact E1|]. split; [exact E2|]. split; [exact E3|]. split; [exact E4|]. split; [exact E5|]. split; [exact E6|].
    split; [exact SF | exact A].
Qed.
