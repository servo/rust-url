(* Proofs/C06_SegFileCls.v - path_segments_mut sessions on the canonical FILE records of C02 (FileCanon) return
   canonical file records: the exact evaluation of C06_SegFile turns the session into an operation on the canonical
   path (segments, last segment) as in C06_PushCanon; a pushed segment that is not skipped is a good segment of the
   special class, and under the computable side condition session_nd (the text written for every pushed segment does
   not begin with a letter followed by ':' or '|') it is a file segment (fseg_ok); the first segment stays non-empty. *)
From RU Require Import Base.Prelude Base.Utf8 Base.Utf8Facts Model.AsciiSet Gen.Tables
  Model.PercentEncoding Model.HostT Model.UrlRecord Model.Parser Model.Setters Model.WF
  Proofs.ListN Proofs.C03_WF Proofs.C06_List Proofs.C06_WFI Proofs.C06_Suffix Proofs.C06_PathParser Proofs.C06_Path
  Proofs.C14_Set Proofs.C14_Enc Proofs.C14_Views Proofs.C02_Enc Proofs.C02_Parts
  Proofs.C02_Opaque Proofs.C02_Path Proofs.C02_PathL1 Proofs.C02_Reach Proofs.C02_AuthParts
  Proofs.C02_Auth Proofs.C02_AuthWf Proofs.C02_PathSp Proofs.C02_AuthSp Proofs.C02_SetQF
  Proofs.C02_Canon Proofs.C02_File Proofs.C02_FileCanon
  Proofs.C06_SplicePath Proofs.C06_Segments Proofs.C06_SegPush Proofs.C06_PushCanon
  Proofs.C06_SegFile Proofs.C06_SegFileCanon.
Open Scope N_scope.
Open Scope list_scope.

Definition fcls (p : pth) : Prop :=
  match p with
  | Some (segs, last) => forallb fseg_ok segs = true /\ fseg_ok last = true
                         /\ match segs with [] => True | s :: _ => s <> [] end
  | None => False
  end.

Lemma fcls_ok p : fcls p -> pth_ok p.
Proof.
  destruct p as [[segs last]|]; [|contradiction]. intros (H1 & H2 & _). split.
  - apply good_segs_sp_good. apply fsegs_ok_sp. exact H1.
  - apply good_seg_sp_good. apply fseg_ok_sp. exact H2.
Qed.

Lemma fseg_ok_nil : fseg_ok [] = true.
Proof. reflexivity. Qed.

Lemma fcls_clear p : fcls p -> fcls (pth_clear p).
Proof. destruct p as [[segs last]|]; [|contradiction]. intros _. cbn [pth_clear fcls]. repeat split. Qed.

Lemma fcls_push p E : fcls p -> fseg_ok E = true -> fcls (pth_push p E).
Proof.
  destruct p as [[segs last]|]; [|contradiction]. intros (H1 & H2 & H3) G.
  destruct segs as [|s segs']; [destruct last as [|c r]|]; cbn [pth_push fcls].
  - repeat split. exact G.
  - split; [|split; [exact G|]].
    + cbn [app forallb]. rewrite H2. reflexivity.
    + cbn [app]. discriminate.
  - split; [|split; [exact G|]].
    + rewrite forallb_snoc, H1, H2. reflexivity.
    + cbn [app]. exact H3.
Qed.

Lemma first_removelast (s0 : list N) sg0 : s0 <> [] ->
  match removelast (s0 :: sg0) with [] => True | s :: _ => s <> [] end.
Proof. intros H. destruct sg0 as [|s1 r]; cbn [removelast]; [exact I | exact H]. Qed.

Lemma fcls_pop p : fcls p -> fcls (pth_pop p).
Proof.
  destruct p as [[segs last]|]; [|contradiction]. intros (H1 & H2 & H3).
  destruct segs as [|s0 sg0]; cbn [pth_pop fcls]; [repeat split|].
  destruct (forallb_removelast fseg_ok (s0 :: sg0) [] ltac:(discriminate) H1) as [G1 G2].
  split; [exact G1|]. split; [exact G2|]. apply first_removelast. exact H3.
Qed.

Lemma fcls_pop_if_empty p : fcls p -> fcls (pth_pop_if_empty p).
Proof.
  destruct p as [[segs last]|]; [|contradiction]. intros (H1 & H2 & H3).
  destruct segs as [|s0 sg0]; destruct last as [|c r]; cbn [pth_pop_if_empty fcls]; try (split; [|split]; assumption).
  destruct (forallb_removelast fseg_ok (s0 :: sg0) [] ltac:(discriminate) H1) as [G1 G2].
  split; [exact G1|]. split; [exact G2|]. apply first_removelast. exact H3.
Qed.

(* the side condition: no pushed segment is written as a drive-letter-like text *)
Definition seg_nd (seg : list N) : bool := seg_skipped (strip_tnl seg) || negb (wdl_like (seg_text STFile seg)).
Definition op_nd (o : psm_op) : bool :=
  match o with PPush s => seg_nd s | PExtend ss => forallb seg_nd ss | _ => true end.
Definition session_nd (ops : list psm_op) : bool := forallb op_nd ops.

Lemma extend_text_fcls segs : forall p, fcls p -> Forall usv_list segs -> forallb seg_nd segs = true ->
  exists p', fcls p' /\ extend_text STFile (pth_text p) segs = pth_text p'.
Proof.
  induction segs as [|seg rest IH]; intros p Hc Hu Hn; cbn [extend_text fold_left].
  - exists p. split; [exact Hc | reflexivity].
  - pose proof (Forall_inv Hu) as Hu1. pose proof (Forall_inv_tail Hu) as Hu2.
    cbn [forallb] in Hn. apply andb_true_iff in Hn. destruct Hn as [Hn1 Hn2].
    destruct (seg_skipped (strip_tnl seg)) eqn:Hk1.
    + unfold push_text at 2. rewrite Hk1. apply IH; assumption.
    + rewrite (push_text_pth STFile p seg Hk1). destruct (seg_text_good STFile seg Hu1 Hk1) as [_ Gsp].
      unfold seg_nd in Hn1. rewrite Hk1 in Hn1. cbn [orb] in Hn1.
      apply IH; [|assumption|assumption]. apply fcls_push; [exact Hc|].
      unfold fseg_ok. rewrite (Gsp eq_refl), Hn1. reflexivity.
Qed.

Lemma session_text_fcls ops : forall p, fcls p -> Forall psm_op_usv ops -> session_nd ops = true ->
  exists p', fcls p' /\ session_text STFile (pth_text p) ops = pth_text p'.
Proof.
  induction ops as [|o rest IH]; intros p Hc Hu Hn; cbn [session_text fold_left].
  - exists p. split; [exact Hc | reflexivity].
  - pose proof (Forall_inv Hu) as Hu1. pose proof (Forall_inv_tail Hu) as Hu2.
    unfold session_nd in Hn. cbn [forallb] in Hn. apply andb_true_iff in Hn. destruct Hn as [Hn1 Hn2].
    assert (exists p1, fcls p1 /\ op_text STFile (pth_text p) o = pth_text p1) as (p1 & Hc1 & E1).
    { pose proof (fcls_ok p Hc) as Hok.
      destruct o; cbn [op_text psm_op_usv op_nd] in *.
      - exists (pth_clear p). split; [apply fcls_clear; exact Hc | apply clear_text_pth].
      - exists (pth_pop_if_empty p). split; [apply fcls_pop_if_empty; exact Hc | apply pop_if_empty_text_pth; exact Hok].
      - exists (pth_pop p). split; [apply fcls_pop; exact Hc | apply pop_text_pth; exact Hok].
      - apply (extend_text_fcls [s] p Hc); [constructor; [assumption | constructor]|].
        cbn [forallb]. rewrite Hn1. reflexivity.
      - apply (extend_text_fcls ss p Hc); assumption. }
    rewrite E1. apply (IH p1 Hc1 Hu2 Hn2).
Qed.

(* a whole session on a canonical file record *)
Section FileCls.
Variable dbg : bool.
Variable hp hpo : list N -> result host.
Variable hd : host -> list N.
Hypothesis HRT : HostRT hp hpo hd.

Theorem psm_file ho segs last q f ops u' : file_ok hp hd ho segs last q f ->
  file_session_ok (path_text segs last) ops = true -> session_nd ops = true -> Forall psm_op_usv ops ->
  path_segments_session dbg (file_curl hd ho (path_text segs last) q f) ops = Some (u', SOk) ->
  exists segs' last', fcls (Some (segs', last')) /\ u' = file_curl hd ho (path_text segs' last') q f
    /\ path_text segs' last' = session_text STFile (path_text segs last) ops.
Proof.
  intros K Hok Hn Hu E.
  assert (FileCanon hp hd (file_curl hd ho (path_text segs last) q f)) as FC by (constructor; exact K).
  pose proof (psm_session_FileCanon dbg hp hpo hd HRT _ ops u' FC) as X.
  rewrite file_curl_path_bytes in X. destruct (X Hok Hu E) as (_ & X2 & _). clear X.
  assert (fcls (Some (segs, last))) as Hc.
  { destruct K as [Kh Ksegs Klast Kfirst Kq Kf Kb1 Kbq Kbf]. cbn [fcls]. split; [exact Ksegs|]. split; [exact Klast | exact Kfirst]. }
  destruct (session_text_fcls ops (Some (segs, last)) Hc Hu Hn) as (p' & Hc' & E').
  cbn [pth_text] in E'. destruct p' as [[segs' last']|]; [|contradiction].
  exists segs', last'. split; [exact Hc'|]. cbn [pth_text] in E'. split; [|symmetry; exact E'].
  rewrite X2, E'. unfold file_curl, file_pre. apply with_path_qf.
Qed.

(* the result of a session on a canonical file record is a canonical file record *)
Theorem psm_FileCanon u ops u' : FileCanon hp hd u ->
  file_session_ok (path_bytes u) ops = true -> session_nd ops = true -> Forall psm_op_usv ops ->
  path_segments_session dbg u ops = Some (u', SOk) -> nlen (ser u') <= U32_MAX_P -> FileCanon hp hd u'.
Proof.
  intros FC Hok Hn Hu E Hb. destruct FC as [ho segs last q f K]. rewrite file_curl_path_bytes in Hok.
  destruct (psm_file ho segs last q f ops u' K Hok Hn Hu E) as (segs' & last' & (H1 & H2 & H3) & -> & _).
  constructor. unfold file_curl at 1, qf_url at 1 in Hb. cbn [ser] in Hb.
  fold (file_ser hd ho (path_text segs' last') q f) in Hb.
  destruct (file_bounds_of_len hp hpo hd ho (path_text segs' last') q f Hb) as (B1 & B2 & B3).
  destruct K as [Kh Ksegs Klast Kfirst Kq Kf Kb1 Kbq Kbf].
  constructor; assumption.
Qed.
End FileCls.

(* session_nd is stronger than the side condition file_session_ok of the exact evaluation *)
Lemma nwdl_app_like A X : is_normalized_wdl A = true -> wdl_like (A ++ X) = true.
Proof.
  unfold is_normalized_wdl. intros H. apply andb_true_iff in H. destruct H as [H _].
  destruct (is_wdl_cases A H) as (a & b & -> & Ha & Hb). cbn [app wdl_like]. rewrite Ha.
  destruct Hb as [->| ->]; reflexivity.
Qed.

Lemma not_like_not_bar t : wdl_like t = false -> wdl_bar t = false.
Proof.
  destruct t as [|a [|b [|c r]]]; cbn [wdl_like wdl_bar]; try reflexivity.
  destruct (is_alpha a); [|reflexivity]. cbn [andb]. destruct (b =? 124); [|reflexivity].
  rewrite orb_true_r. discriminate.
Qed.

Lemma strip_tnl_cons c r : strip_tnl (c :: r) = if is_tnl c then strip_tnl r else c :: strip_tnl r.
Proof. destruct (is_tnl c) eqn:E; unfold strip_tnl; cbn [filter]; cbv [C06_FragQuery.not_tnl C02_Enc.not_tnl]; rewrite E; reflexivity. Qed.

Lemma flush_ok_nd l : forall acc pend, wdl_like (etext (acc ++ rev pend ++ strip_tnl l)) = false ->
  flush_ok acc pend l = true.
Proof.
  induction l as [|c r IH]; intros acc pend H; cbn [flush_ok]; [reflexivity|].
  rewrite strip_tnl_cons in H. destruct (is_tnl c) eqn:Et.
  - apply IH. cbn [rev app]. rewrite <- app_assoc. exact H.
  - apply andb_true_iff. split.
    + apply negb_true_iff. destruct (is_normalized_wdl (etext acc)) eqn:En; [|reflexivity].
      rewrite etext_app in H. rewrite (nwdl_app_like _ _ En) in H. discriminate H.
    + apply IH. cbn [rev]. rewrite <- app_assoc. exact H.
Qed.

Lemma seg_nd_push_ok P seg : seg_nd seg = true -> push_ok P seg = true.
Proof.
  unfold seg_nd, push_ok. intros H. destruct (seg_skipped (strip_tnl seg)); [reflexivity|]. cbn [orb] in *.
  apply negb_true_iff in H. apply orb_true_iff. right. unfold root_seg_ok. apply andb_true_iff. split.
  - apply flush_ok_nd. cbn [rev app]. exact H.
  - apply negb_true_iff. apply not_like_not_bar. exact H.
Qed.

Lemma nd_extend_ok segs : forall P, forallb seg_nd segs = true -> extend_ok P segs = true.
Proof.
  induction segs as [|s r IH]; intros P H; cbn [extend_ok]; [reflexivity|].
  cbn [forallb] in H. apply andb_true_iff in H. destruct H as [H1 H2].
  rewrite (seg_nd_push_ok P s H1). cbn [andb]. apply IH. exact H2.
Qed.

Lemma session_nd_ok ops : forall P, session_nd ops = true -> file_session_ok P ops = true.
Proof.
  induction ops as [|o r IH]; intros P H; cbn [file_session_ok]; [reflexivity|].
  unfold session_nd in H. cbn [forallb] in H. apply andb_true_iff in H. destruct H as [H1 H2].
  rewrite (IH _ H2). rewrite andb_true_r.
  destruct o; cbn [op_ok op_nd] in *; try reflexivity.
  - apply seg_nd_push_ok. exact H1.
  - apply nd_extend_ok. exact H1.
Qed.

Section FileClsNd.
Variable dbg : bool.
Variable hp hpo : list N -> result host.
Variable hd : host -> list N.
Hypothesis HRT : HostRT hp hpo hd.

(* the session theorem under the single side condition session_nd: the result is canonical and its text is explicit *)
Theorem psm_FileCanon_nd u ops u' : FileCanon hp hd u -> session_nd ops = true -> Forall psm_op_usv ops ->
  path_segments_session dbg u ops = Some (u', SOk) -> nlen (ser u') <= U32_MAX_P ->
  FileCanon hp hd u' /\ u' = with_path u (session_text STFile (path_bytes u) ops).
Proof.
  intros FC Hn Hu E Hb. pose proof (session_nd_ok ops (path_bytes u) Hn) as Hok. split.
  - exact (psm_FileCanon dbg hp hpo hd HRT u ops u' FC Hok Hn Hu E Hb).
  - destruct (psm_session_FileCanon dbg hp hpo hd HRT u ops u' FC Hok Hu E) as (_ & X & _). exact X.
Qed.
End FileClsNd.
