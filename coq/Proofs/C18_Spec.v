(* Proofs/C18_Spec.v - the streaming decoder computes the Infra forgiving-base64 decode;
   decode (standard_encode x) = x. *)
From RU Require Import Base.Prelude Model.Base64 Spec.Infra Proofs.C18_Table Proofs.C18_Machine.

Lemma mod_mul_mod x a b : a <> 0 -> b <> 0 -> (x mod (a * b)) mod a = x mod a.
Proof.
  intros Ha Hb. rewrite N.mod_mul_r, N.mul_comm, N.mod_add, N.mod_mod by assumption. reflexivity.
Qed.

Lemma mod_mul_div x a b : a <> 0 -> b <> 0 -> (x mod (a * b)) / a = (x / a) mod b.
Proof.
  intros Ha Hb. rewrite N.mod_mul_r, N.mul_comm, N.div_add by assumption.
  rewrite N.div_small by (apply N.mod_lt; exact Ha). reflexivity.
Qed.

Lemma land_mul64_small q v : v < 64 -> N.land (q * 64) v = 0.
Proof.
  intros Hv. apply N.bits_inj. intros m. rewrite N.land_spec, N.bits_0.
  destruct (m <? 6) eqn:Hm.
  - change 64 with (2 ^ 6). rewrite N.mul_pow2_bits_low by lia. reflexivity.
  - replace v with (v mod 2 ^ 6) by (change (2 ^ 6) with 64; apply N.mod_small; exact Hv).
    rewrite N.mod_pow2_bits_high by lia. apply andb_false_r.
Qed.

(* `buf <<= 6; buf |= v` on a u32 *)
Lemma lor_shl6 x v : v < 64 -> N.lor (u32_shl x 6) v = (x * 64) mod 4294967296 + v.
Proof.
  intros Hv. unfold u32_shl, u32_modulus. rewrite N.shiftl_mul_pow2. change (2 ^ 6) with 64.
  change 4294967296 with (67108864 * 64). rewrite N.mul_mod_distr_r by discriminate.
  rewrite <- N.lxor_lor by (apply land_mul64_small; exact Hv).
  symmetry. apply N.add_nocarry_lxor. apply land_mul64_small; exact Hv.
Qed.

(* after the push the low nb + 6 bits are the old low nb bits followed by v; nothing of them is lost
   as long as they fit into the 32 *)
Lemma push_low B v nb : v < 64 -> nb <= 26 ->
  ((B * 64) mod 4294967296 + v) mod 2 ^ (nb + 6) = (B mod 2 ^ nb) * 64 + v.
Proof.
  intros Hv Hnb. assert (H2 : 2 ^ nb <> 0) by (apply N.pow_nonzero; discriminate).
  replace 4294967296 with (2 ^ (nb + 6) * 2 ^ (26 - nb))
    by (rewrite <- N.pow_add_r; replace (nb + 6 + (26 - nb)) with 32 by lia; reflexivity).
  rewrite <- N.add_mod_idemp_l, mod_mul_mod by (apply N.pow_nonzero; discriminate).
  rewrite N.pow_add_r. change (2 ^ 6) with 64.
  rewrite N.mul_mod_distr_r by (assumption || discriminate).
  apply N.mod_small. pose proof (N.mod_lt B _ H2). nia.
Qed.

(* the big-endian bytes of the low 24, 12 and 18 bits, as Infra cuts them out of its buffer and as the
   code cuts them out of the u32 *)
Lemma bytes_of_24 x :
  let S := x mod 2 ^ 24 in
  [S / 65536; (S / 256) mod 256; S mod 256] = [(x / 65536) mod 256; (x / 256) mod 256; x mod 256].
Proof.
  cbv zeta. f_equal; [|f_equal; [|f_equal]].
  - exact (mod_mul_div x 65536 256 ltac:(discriminate) ltac:(discriminate)).
  - change (2 ^ 24) with (256 * (256 * 256)). rewrite mod_mul_div by discriminate. apply mod_mul_mod; discriminate.
  - exact (mod_mul_mod x 256 65536 ltac:(discriminate) ltac:(discriminate)).
Qed.

Lemma bytes_of_12 x : (x mod 2 ^ 12) / 16 = (x / 16) mod 256.
Proof. exact (mod_mul_div x 16 256 ltac:(discriminate) ltac:(discriminate)). Qed.

Lemma bytes_of_18 x :
  let S := x mod 2 ^ 18 in [S / 1024; (S / 4) mod 256] = [(x / 1024) mod 256; (x / 4) mod 256].
Proof.
  cbv zeta. f_equal; [|f_equal].
  - exact (mod_mul_div x 1024 256 ltac:(discriminate) ltac:(discriminate)).
  - change (2 ^ 18) with (4 * (256 * 256)). rewrite mod_mul_div by discriminate. apply mod_mul_mod; discriminate.
Qed.

Lemma pstep_alpha p c v :
  alphabet_index c = Some v -> p_pad p = 0 ->
  pstep p c =
  let buf := (p_buf p * 64) mod 4294967296 + v in
  if p_len p <? 18 then PSkip (mk_pst buf (p_len p + 6) 0)
  else PEmit (mk_pst buf (p_len p) 0) [(buf / 65536) mod 256; (buf / 256) mod 256; buf mod 256].
Proof.
  intros Hv Hpad. pose proof (alphabet_index_lt64 c v Hv) as Hlt.
  unfold pstep. rewrite b64_value_spec, Hv, Hpad.
  replace (Z.of_N v <? 0)%Z with false by lia. replace (0 <? 0) with false by reflexivity.
  rewrite N2Z.id, lor_shl6 by exact Hlt. cbv zeta.
  unfold as_u8. rewrite !N.shiftr_div_pow2. reflexivity.
Qed.

Lemma pstep_ws p c : is_ascii_whitespace c = true -> pstep p c = PSkip p.
Proof.
  intros Hws. unfold pstep. rewrite b64_value_spec, (ws_not_alphabet c Hws), ws_list_is_infra, Hws.
  reflexivity.
Qed.

Lemma pstep_equals p : pstep p 61 = PSkip (mk_pst (p_buf p) (p_len p) (u8_saturating_add (p_pad p) 1)).
Proof.
  unfold pstep. rewrite b64_value_spec, equals_not_alphabet, ws_list_is_infra, equals_not_ws, pad_is_equals.
  reflexivity.
Qed.

Lemma pstep_other p c :
  alphabet_index c = None -> is_ascii_whitespace c = false -> (c =? 61) = false ->
  pstep p c = PErr (UnexpectedSymbol c).
Proof.
  intros Ha Hw He. unfold pstep. rewrite b64_value_spec, Ha, ws_list_is_infra, Hw, pad_is_equals, He.
  reflexivity.
Qed.

Lemma pstep_alpha_after_pad p c v :
  alphabet_index c = Some v -> 0 < p_pad p -> pstep p c = PErr AlphabetSymbolAfterPadding.
Proof.
  intros Hv Hpad. unfold pstep. rewrite b64_value_spec, Hv.
  replace (Z.of_N v <? 0)%Z with false by lia. replace (0 <? p_pad p) with true by lia. reflexivity.
Qed.

Lemma ptrace_strip_ws p input : ptrace p input = ptrace p (strip_whitespace input).
Proof.
  revert p. induction input as [|c r IH]; intros p; [reflexivity|].
  unfold strip_whitespace in *. cbn [filter].
  destruct (is_ascii_whitespace c) eqn:Hws; cbn [negb].
  - cbn [ptrace]. rewrite (pstep_ws p c Hws). apply IH.
  - cbn [ptrace]. destruct (pstep p c) as [p'|p' ch|e]; [apply IH | rewrite IH; reflexivity | reflexivity].
Qed.

Definition no_ws (l : list N) : Prop := forallb (fun c => negb (is_ascii_whitespace c)) l = true.

Lemma strip_ws_no_ws input : no_ws (strip_whitespace input).
Proof.
  unfold no_ws, strip_whitespace. apply forallb_forall. intros c Hc. apply filter_In in Hc. tauto.
Qed.

(* span_alpha d: the maximal alphabet prefix of d, and the rest *)
Fixpoint span_alpha (d : list N) : list N * list N :=
  match d with
  | [] => ([], [])
  | c :: r => match alphabet_index c with
              | Some v => let (vs, rest) := span_alpha r in (v :: vs, rest)
              | None => ([], d)
              end
  end.

Definition head_not_alpha (l : list N) : Prop :=
  match l with [] => True | c :: _ => alphabet_index c = None end.

Lemma span_alpha_spec d :
  exists A, d = A ++ snd (span_alpha d) /\ sextets A = Some (fst (span_alpha d))
            /\ head_not_alpha (snd (span_alpha d)).
Proof.
  induction d as [|c r IH].
  - exists []. cbn. repeat split.
  - cbn [span_alpha]. destruct (alphabet_index c) as [v|] eqn:Hv.
    + destruct IH as [A [H1 [H2 H3]]]. destruct (span_alpha r) as [vs rest]. cbn [fst snd] in *.
      exists (c :: A). repeat split.
      * cbn [app]. congruence.
      * cbn [sextets]. rewrite Hv, H2. reflexivity.
      * exact H3.
    + exists []. cbn [fst snd app sextets head_not_alpha]. repeat split. exact Hv.
Qed.

Lemma span_alpha_app X ns t :
  sextets X = Some ns -> head_not_alpha t -> span_alpha (X ++ t) = (ns, t).
Proof.
  revert ns. induction X as [|c r IH]; intros ns HX Ht.
  - cbn [sextets] in HX. inversion HX; subst. cbn [app].
    destruct t as [|c t']; [reflexivity|]. cbn [span_alpha]. cbn [head_not_alpha] in Ht. rewrite Ht. reflexivity.
  - cbn [sextets] in HX. destruct (alphabet_index c) as [v|] eqn:Hv; [|discriminate].
    destruct (sextets r) as [ns'|] eqn:Hr; [|discriminate]. inversion HX; subst.
    cbn [app span_alpha]. rewrite Hv, (IH ns' eq_refl Ht). reflexivity.
Qed.

Lemma sextets_length X ns : sextets X = Some ns -> length ns = length X.
Proof.
  revert ns. induction X as [|c r IH]; intros ns H; cbn [sextets] in H.
  - inversion H. reflexivity.
  - destruct (alphabet_index c); [|discriminate]. destruct (sextets r) as [ns'|]; [|discriminate].
    inversion H; subst. cbn [length]. f_equal. apply IH. reflexivity.
Qed.

(* Infra's buffer holds the nb bits read since the last flush; they are the low nb bits of the u32,
   whose higher bits are left over from earlier groups *)
Definition Inv (p : pst) (sb nb : N) : Prop :=
  p_pad p = 0 /\ p_len p = nb /\ sb = p_buf p mod 2 ^ nb /\ (nb = 0 \/ nb = 6 \/ nb = 12 \/ nb = 18).

Lemma accumulate_cons out sb nb n r :
  accumulate out sb nb (n :: r) =
  if nb + 6 =? 24
  then accumulate (out ++ [(sb * 64 + n) / 65536; ((sb * 64 + n) / 256) mod 256; (sb * 64 + n) mod 256]) 0 0 r
  else accumulate out (sb * 64 + n) (nb + 6) r.
Proof. reflexivity. Qed.

Lemma ptrace_alpha A : forall vs p sb nb out,
  sextets A = Some vs -> Inv p sb nb ->
  exists calls p' sb' nb',
    ptrace p A = (calls, inl p')
    /\ accumulate out sb nb vs = (out ++ concat calls, sb', nb')
    /\ Inv p' sb' nb'
    /\ nb' = 6 * ((nb / 6 + N.of_nat (length vs)) mod 4).
Proof.
  induction A as [|c r IH]; intros vs p sb nb out HA HI.
  - cbn [sextets] in HA. inversion HA; subst vs.
    exists [], p, sb, nb. cbn [ptrace accumulate concat length]. rewrite app_nil_r.
    refine (conj eq_refl (conj eq_refl (conj HI _))).
    destruct HI as (_ & _ & _ & HC). lia.
  - cbn [sextets] in HA. destruct (alphabet_index c) as [v|] eqn:Hv; [|discriminate].
    destruct (sextets r) as [vs'|] eqn:Hr; [|discriminate]. inversion HA; subst vs. clear HA.
    pose proof (alphabet_index_lt64 c v Hv) as Hlt.
    destruct HI as (Hpad & Hlen & Hsb & HC).
    cbn [ptrace]. rewrite (pstep_alpha p c v Hv Hpad). cbv zeta. rewrite accumulate_cons, Hlen.
    set (buf := (p_buf p * 64) mod 4294967296 + v).
    assert (Hpush : sb * 64 + v = buf mod 2 ^ (nb + 6)) by (subst buf sb; rewrite push_low by lia; reflexivity).
    destruct (nb <? 18) eqn:Hnb.
    + (* no write *)
      replace (nb + 6 =? 24) with false by (clear - Hnb; lia).
      destruct (IH vs' (mk_pst buf (nb + 6) 0) (sb * 64 + v) (nb + 6) out eq_refl)
        as (calls & p' & sb' & nb' & H1 & H2 & H3 & H4).
      { refine (conj eq_refl (conj eq_refl (conj Hpush _))). clear - HC Hnb. lia. }
      exists calls, p', sb', nb'. refine (conj H1 (conj H2 (conj H3 _))).
      rewrite H4. cbn [length]. clear - HC Hnb. destruct HC as [->|[->|[->| ->]]]; try discriminate Hnb; lia.
    + (* the fourth symbol: write three bytes *)
      assert (nb = 18) as -> by (clear - HC Hnb; lia). change (18 + 6 =? 24) with true. cbv iota.
      rewrite Hpush. change (18 + 6) with 24. rewrite (bytes_of_24 buf).
      destruct (IH vs' (p_reset (mk_pst buf 18 0)) 0 0
                   (out ++ [(buf / 65536) mod 256; (buf / 256) mod 256; buf mod 256]) eq_refl)
        as (calls & p' & sb' & nb' & H1 & H2 & H3 & H4).
      { refine (conj eq_refl (conj eq_refl (conj _ (or_introl eq_refl)))). symmetry. apply N.mod_1_r. }
      rewrite H1. eexists (_ :: calls), p', sb', nb'.
      refine (conj eq_refl (conj _ (conj H3 _))).
      * rewrite H2. cbn [concat]. rewrite <- app_assoc. reflexivity.
      * rewrite H4. cbn [length]. clear. lia.
Qed.

(* after the alphabet prefix only '=' may follow *)
Definition all61 (l : list N) : bool := forallb (fun c => c =? 61) l.

Lemma ptrace_padding l : forall p,
  no_ws l -> p_pad p <= 255 -> (0 < p_pad p \/ head_not_alpha l) ->
  if all61 l
  then ptrace p l = ([], inl (mk_pst (p_buf p) (p_len p) (N.min 255 (p_pad p + N.of_nat (length l)))))
  else exists e, ptrace p l = ([], inr e).
Proof.
  induction l as [|c r IH]; intros p Hws Hle Hhd.
  - cbn [all61 forallb ptrace length]. destruct p as [b n q]. cbn [p_buf p_len p_pad] in *.
    do 3 f_equal. lia.
  - unfold no_ws in Hws. cbn [forallb] in Hws. apply andb_true_iff in Hws. destruct Hws as [Hc Hr].
    cbn [all61 forallb ptrace].
    destruct (c =? 61) eqn:He.
    + apply N.eqb_eq in He. subst c. rewrite pstep_equals. cbn [andb]. fold (all61 r).
      assert (Hsat : u8_saturating_add (p_pad p) 1 = N.min 255 (p_pad p + 1))
        by (unfold u8_saturating_add; destruct (p_pad p + 1 <=? 255) eqn:Hs; lia).
      specialize (IH (mk_pst (p_buf p) (p_len p) (u8_saturating_add (p_pad p) 1)) Hr).
      cbn [p_buf p_len p_pad] in IH. rewrite Hsat in *.
      assert (Hb : 0 < N.min 255 (p_pad p + 1) <= 255) by lia.
      specialize (IH (proj2 Hb) (or_introl (proj1 Hb))).
      destruct (all61 r); [|exact IH].
      rewrite IH. cbn [length]. do 3 f_equal. lia.
    + cbn [andb]. destruct (alphabet_index c) as [v|] eqn:Hv.
      * destruct Hhd as [Hpad|Hhd]; [|cbn [head_not_alpha] in Hhd; congruence].
        rewrite (pstep_alpha_after_pad p c v Hv Hpad). eexists; reflexivity.
      * assert (Hw : is_ascii_whitespace c = false)
          by (destruct (is_ascii_whitespace c); [discriminate Hc | reflexivity]).
        rewrite (pstep_other p c Hv Hw He). eexists; reflexivity.
Qed.

(* the hub: tidy is a closed description of the result on whitespace-free data; the decoder
   (decode_to_vec_tidy) and Infra's algorithm (infra_tidy) both compute it *)
Definition shape_ok (n4 p : N) : bool :=
  ((n4 =? 0) && (p =? 0)) || ((n4 =? 2) && ((p =? 0) || (p =? 2))) || ((n4 =? 3) && ((p =? 0) || (p =? 1))).

Definition tidy (data : list N) : option (list N) :=
  let (vs, rest) := span_alpha data in
  if all61 rest && shape_ok (N.of_nat (length vs) mod 4) (N.of_nat (length rest))
  then Some (flush_buffer (accumulate [] 0 0 vs))
  else None.

Lemma min255_eqb P : (N.min 255 P =? 0) = (P =? 0) /\ (N.min 255 P =? 1) = (P =? 1) /\ (N.min 255 P =? 2) = (P =? 2).
Proof. repeat split; lia. Qed.

(* pfinish is Infra's step 9 (flush_buffer), with shape_ok as the verdict table *)
Lemma pfinish_flush p sb nb n4 out P :
  Inv p sb nb -> nb = 6 * n4 ->
  if shape_ok n4 P
  then exists c2, pfinish (mk_pst (p_buf p) (p_len p) (N.min 255 P)) = (c2, None)
                  /\ flush_buffer (out, sb, nb) = out ++ concat c2
  else snd (pfinish (mk_pst (p_buf p) (p_len p) (N.min 255 P))) <> None.
Proof.
  intros (Hpad & Hlen & Hsb & HC) Hn4. unfold pfinish, shape_ok. cbn [p_buf p_len p_pad]. rewrite Hlen.
  destruct (min255_eqb P) as (M0 & M1 & M2). rewrite M0, M1, M2.
  unfold as_u8, flush_buffer. rewrite !N.shiftr_div_pow2. subst sb.
  (* once the test on the number of '=' is decided, what is left compares numerals *)
  destruct HC as [->|[->|[->| ->]]].
  - assert (n4 = 0) as -> by lia.
    destruct (P =? 0); cbv [N.eqb Pos.eqb andb orb snd]; [|discriminate].
    exists []. rewrite app_nil_r. split; reflexivity.
  - assert (n4 = 1) as -> by lia. cbv [N.eqb Pos.eqb andb orb snd]. discriminate.
  - assert (n4 = 2) as -> by lia. rewrite (orb_comm (P =? 0) (P =? 2)).
    destruct ((P =? 2) || (P =? 0)); cbv [N.eqb Pos.eqb andb orb snd]; [|discriminate].
    eexists. split; [reflexivity|]. cbn [concat app]. rewrite bytes_of_12. reflexivity.
  - assert (n4 = 3) as -> by lia. rewrite (orb_comm (P =? 0) (P =? 1)).
    destruct ((P =? 1) || (P =? 0)); cbv [N.eqb Pos.eqb andb orb snd]; [|discriminate].
    eexists. split; [reflexivity|]. cbn [concat app]. rewrite (bytes_of_18 (p_buf p)). reflexivity.
Qed.

Lemma no_ws_app a b : no_ws (a ++ b) -> no_ws a /\ no_ws b.
Proof. unfold no_ws. rewrite forallb_app. intros H. apply andb_true_iff in H. exact H. Qed.

Lemma Inv_new : Inv p_new 0 0.
Proof. exact (conj eq_refl (conj eq_refl (conj eq_refl (or_introl eq_refl)))). Qed.

Theorem prun_tidy data :
  no_ws data ->
  match tidy data with
  | Some out => snd (prun data) = None /\ concat (fst (prun data)) = out
  | None => snd (prun data) <> None
  end.
Proof.
  intros Hws. destruct (span_alpha_spec data) as [A [HD [HA Hhd]]]. unfold tidy.
  destruct (span_alpha data) as [vs rest]. cbn [fst snd] in *.
  rewrite HD in Hws. apply no_ws_app in Hws. destruct Hws as [_ Hwr].
  unfold prun. rewrite HD. rewrite ptrace_app.
  destruct (ptrace_alpha A vs p_new 0 0 [] HA Inv_new) as [calls [p' [sb' [nb' [H1 [H2 [H3 H4]]]]]]].
  rewrite H1, H2.
  change (0 / 6 + N.of_nat (length vs)) with (N.of_nat (length vs)) in H4.
  pose proof H3 as (Hpad' & _).
  pose proof (ptrace_padding rest p' Hwr) as HP. rewrite Hpad', N.add_0_l in HP.
  specialize (HP (N.le_0_l 255) (or_intror Hhd)).
  destruct (all61 rest) eqn:Hall; cbn [andb].
  - rewrite HP. pose proof (pfinish_flush p' sb' nb' _ (concat calls) (N.of_nat (length rest)) H3 H4) as HF.
    cbn [app] in *.
    destruct (shape_ok (N.of_nat (length vs) mod 4) (N.of_nat (length rest))).
    + destruct HF as [c2 [HF1 HF2]]. rewrite HF1. cbn [fst snd]. split; [reflexivity|].
      rewrite app_nil_r, concat_app. symmetry. exact HF2.
    + destruct (pfinish _) as [c2 v]. cbn [snd] in *. exact HF.
  - destruct HP as [e HP]. rewrite HP. cbn [snd]. discriminate.
Qed.

Lemma ends_with_equals_snoc x c : ends_with_equals (x ++ [c]) = (c =? 61).
Proof. unfold ends_with_equals. rewrite rev_app_distr. reflexivity. Qed.

Lemma remove_last_snoc x c : remove_last (x ++ [c]) = x.
Proof. unfold remove_last. rewrite rev_app_distr. cbn [rev app tl]. apply rev_involutive. Qed.

Lemma list_snoc_cases (l : list N) : l = [] \/ exists x c, l = x ++ [c].
Proof. induction l as [|c x _] using rev_ind; [left; reflexivity | right; exists x, c; reflexivity]. Qed.

Lemma strip_padding_cases d :
  exists t, d = strip_padding d ++ t /\
            (t = [] \/ (N.of_nat (length d) mod 4 = 0 /\ (t = [61] \/ t = [61; 61]))).
Proof.
  unfold strip_padding. destruct (N.of_nat (length d) mod 4 =? 0) eqn:Hm.
  2:{ exists []. rewrite app_nil_r. split; [reflexivity | left; reflexivity]. }
  apply N.eqb_eq in Hm.
  destruct (list_snoc_cases d) as [->|[x [c ->]]].
  { exists []. split; [reflexivity | left; reflexivity]. }
  rewrite ends_with_equals_snoc, remove_last_snoc.
  destruct (c =? 61) eqn:Hc.
  2:{ exists []. rewrite app_nil_r. split; [reflexivity | left; reflexivity]. }
  apply N.eqb_eq in Hc. subst c.
  destruct (list_snoc_cases x) as [->|[y [c2 ->]]].
  { exists [61]. split; [reflexivity | right; split; [exact Hm | left; reflexivity]]. }
  rewrite ends_with_equals_snoc, remove_last_snoc.
  destruct (c2 =? 61) eqn:Hc2.
  - apply N.eqb_eq in Hc2. subst c2. exists [61; 61].
    split; [rewrite <- app_assoc; reflexivity | right; split; [exact Hm | right; reflexivity]].
  - exists [61]. split; [reflexivity | right; split; [exact Hm | left; reflexivity]].
Qed.

Lemma sextets_ends A vs : sextets A = Some vs -> ends_with_equals A = false.
Proof.
  intros HA. destruct (list_snoc_cases A) as [->|[x [c ->]]]; [reflexivity|].
  rewrite ends_with_equals_snoc. destruct (c =? 61) eqn:Hc; [|reflexivity].
  apply N.eqb_eq in Hc. subst c. exfalso.
  revert vs HA. induction x as [|a r IH]; intros vs HA.
  - cbn [app sextets] in HA. rewrite equals_not_alphabet in HA. discriminate.
  - cbn [app sextets] in HA. destruct (alphabet_index a); [|discriminate].
    destruct (sextets (r ++ [61])) as [ns|]; [|discriminate]. exact (IH ns eq_refl).
Qed.

Lemma all61_cases rest :
  all61 rest = true ->
  rest = [] \/ rest = [61] \/ rest = [61; 61] \/ (3 <= length rest)%nat.
Proof.
  intros H. destruct rest as [|a [|b [|c r]]].
  - left; reflexivity.
  - cbn in H. right; left. f_equal. lia.
  - cbn in H. right; right; left. f_equal; [|f_equal]; lia.
  - right; right; right. cbn [length]. lia.
Qed.

Definition infra_core (data : list N) : option (list N) :=
  let data := strip_padding data in
  if N.of_nat (length data) mod 4 =? 1 then None
  else match sextets data with
       | None => None
       | Some ns => Some (flush_buffer (accumulate [] 0 0 ns))
       end.

Lemma infra_unfold input : forgiving_base64_decode input = infra_core (strip_whitespace input).
Proof. reflexivity. Qed.

Lemma head_not_alpha_pad t : t = [] \/ t = [61] \/ t = [61; 61] -> head_not_alpha t /\ all61 t = true.
Proof.
  intros [->|[->| ->]]; cbn [head_not_alpha]; split; try exact I; try exact equals_not_alphabet; reflexivity.
Qed.

Theorem infra_tidy data : infra_core data = tidy data.
Proof.
  unfold tidy. destruct (span_alpha_spec data) as [A [HD [HA Hhd]]].
  destruct (span_alpha data) as [vs rest] eqn:Hspan. cbn [fst snd] in *.
  pose proof (sextets_length A vs HA) as HlenA.
  destruct (all61 rest && shape_ok (N.of_nat (length vs) mod 4) (N.of_nat (length rest))) eqn:Hok.
  - (* accepted shapes: strip_padding leaves exactly the alphabet prefix *)
    apply andb_true_iff in Hok. destruct Hok as [Hall Hshape].
    assert (Hsp : strip_padding data = A /\ N.of_nat (length vs) mod 4 <> 1).
    { unfold shape_ok in Hshape.
      destruct (all61_cases rest Hall) as [Hr|[Hr|[Hr|Hr]]].
      - subst rest. rewrite app_nil_r in HD. subst data. split; [|cbn [length] in Hshape; lia].
        unfold strip_padding. rewrite (sextets_ends A vs HA). destruct (N.of_nat (length A) mod 4 =? 0); reflexivity.
      - subst rest. subst data. cbn [length] in Hshape. split; [|lia].
        unfold strip_padding. rewrite app_length. cbn [length].
        replace (N.of_nat (length A + 1) mod 4 =? 0) with true by lia.
        rewrite ends_with_equals_snoc, remove_last_snoc, (sextets_ends A vs HA). reflexivity.
      - subst rest. subst data. cbn [length] in Hshape. split; [|lia].
        unfold strip_padding. rewrite app_length. cbn [length].
        replace (N.of_nat (length A + 2) mod 4 =? 0) with true by lia.
        change [61; 61] with ([61] ++ [61]). rewrite app_assoc.
        rewrite ends_with_equals_snoc, remove_last_snoc, ends_with_equals_snoc, remove_last_snoc. reflexivity.
      - exfalso. lia. }
    destruct Hsp as [Hsp Hne]. unfold infra_core. rewrite Hsp, HA, <- HlenA.
    replace (N.of_nat (length vs) mod 4 =? 1) with false by lia. reflexivity.
  - (* everything else fails *)
    unfold infra_core.
    destruct (N.of_nat (length (strip_padding data)) mod 4 =? 1) eqn:Hm1; [reflexivity|].
    destruct (sextets (strip_padding data)) as [ns|] eqn:Hns; [|reflexivity].
    exfalso.
    destruct (strip_padding_cases data) as [t [Ht Htc]].
    assert (Htt : t = [] \/ t = [61] \/ t = [61; 61]) by tauto.
    destruct (head_not_alpha_pad t Htt) as [Hth Hta].
    pose proof (span_alpha_app (strip_padding data) ns t Hns Hth) as Hsp2.
    rewrite <- Ht, Hspan in Hsp2. inversion Hsp2; subst ns t. clear Hsp2.
    rewrite Hta in Hok. cbn [andb] in Hok.
    pose proof (sextets_length _ _ Hns) as Hl.
    assert (Hld : length data = (length vs + length rest)%nat).
    { rewrite Ht at 1. rewrite app_length. lia. }
    unfold shape_ok in Hok.
    destruct Htc as [Hr|[Hm4 [Hr|Hr]]]; rewrite Hr in *; cbn [length] in *; lia.
Qed.

Theorem decode_to_vec_tidy input :
  match decode_to_vec input with inl v => Some v | inr _ => None end = tidy (strip_whitespace input).
Proof.
  rewrite decode_to_vec_prun.
  assert (Hp : prun input = prun (strip_whitespace input)).
  { unfold prun. rewrite (ptrace_strip_ws p_new input). reflexivity. }
  rewrite Hp. pose proof (prun_tidy (strip_whitespace input) (strip_ws_no_ws input)) as HT.
  destruct (tidy (strip_whitespace input)) as [out|].
  - destruct HT as [H1 H2]. rewrite H1, H2. reflexivity.
  - destruct (snd (prun (strip_whitespace input))); [reflexivity | congruence].
Qed.

Theorem decode_to_vec_is_infra input :
  match decode_to_vec input with inl v => Some v | inr _ => None end = forgiving_base64_decode input.
Proof. rewrite decode_to_vec_tidy, infra_unfold, infra_tidy. reflexivity. Qed.

(* induction along the recursion of Infra.std_encode (and sext_of below), which takes three bytes at a time
   and ends on zero, one or two *)
Lemma list_ind3 (P : list N -> Prop) :
  P [] -> (forall a, P [a]) -> (forall a b, P [a; b]) ->
  (forall a b c r, P r -> P (a :: b :: c :: r)) -> forall l, P l.
Proof.
  intros H0 H1 H2 H3. fix IH 1. intros [|a [|b [|c r]]].
  - exact H0.
  - apply H1.
  - apply H2.
  - apply H3. apply IH.
Qed.

(* the 6-bit groups of a byte string, and the padding RFC 4648 appends *)
Fixpoint sext_of (x : list N) : list N :=
  match x with
  | [] => []
  | [a] => [a / 4; (a mod 4) * 16]
  | [a; b] => [a / 4; (a mod 4) * 16 + b / 16; (b mod 16) * 4]
  | a :: b :: c :: r => a / 4 :: (a mod 4) * 16 + b / 16 :: (b mod 16) * 4 + c / 64 :: c mod 64 :: sext_of r
  end.

Fixpoint padding_of (pad : bool) (x : list N) : list N :=
  match x with
  | [] => []
  | [a] => if pad then [61; 61] else []
  | [a; b] => if pad then [61] else []
  | _ :: _ :: _ :: r => padding_of pad r
  end.

Lemma std_encode_shape pad x : std_encode pad x = map b64_char (sext_of x) ++ padding_of pad x.
Proof.
  induction x as [| a | a b | a b c r IH] using list_ind3; try reflexivity.
  cbn [std_encode sext_of padding_of map app]. rewrite IH. reflexivity.
Qed.

Lemma sext_of_lt64 x : bytes x -> Forall (fun v => v < 64) (sext_of x).
Proof.
  induction x as [| a | a b | a b c r IH] using list_ind3; intros Hb; cbn [sext_of].
  - constructor.
  - inversion Hb; subst. unfold is_byte in *. repeat constructor; lia.
  - inversion Hb as [|? ? Ha Hb']; subst. inversion Hb'; subst. unfold is_byte in *. repeat constructor; lia.
  - inversion Hb as [|? ? Ha Hb1]; subst. inversion Hb1 as [|? ? Hbb Hb2]; subst.
    inversion Hb2 as [|? ? Hc Hb3]; subst. unfold is_byte in *.
    repeat (constructor; [lia|]). exact (IH Hb3).
Qed.

Lemma sextets_map_char vs : Forall (fun v => v < 64) vs -> sextets (map b64_char vs) = Some vs.
Proof.
  induction vs as [|v r IH]; intros H; [reflexivity|].
  inversion H; subst. cbn [map sextets]. rewrite alphabet_index_of_char by assumption.
  rewrite IH by assumption. reflexivity.
Qed.

Lemma padding_of_cases pad x :
  padding_of pad x = [] \/ padding_of pad x = [61] \/ padding_of pad x = [61; 61].
Proof.
  induction x as [| a | a b | a b c r IH] using list_ind3; cbn [padding_of]; try destruct pad; tauto.
Qed.

Lemma shape_of_encoding pad x :
  shape_ok (N.of_nat (length (sext_of x)) mod 4) (N.of_nat (length (padding_of pad x))) = true.
Proof.
  induction x as [| a | a b | a b c r IH] using list_ind3; cbn [sext_of padding_of].
  - reflexivity.
  - destruct pad; reflexivity.
  - destruct pad; reflexivity.
  - cbn [length]. revert IH. generalize (length (sext_of r)) as n. generalize (N.of_nat (length (padding_of pad r))) as q.
    intros q n IH. replace (N.of_nat (S (S (S (S n)))) mod 4) with (N.of_nat n mod 4) by lia. exact IH.
Qed.

Lemma accumulate4 out a b c d r :
  accumulate out 0 0 (a :: b :: c :: d :: r) =
  accumulate (out ++ [(((a * 64 + b) * 64 + c) * 64 + d) / 65536;
                      ((((a * 64 + b) * 64 + c) * 64 + d) / 256) mod 256;
                      (((a * 64 + b) * 64 + c) * 64 + d) mod 256]) 0 0 r.
Proof.
  rewrite !accumulate_cons.
  change (0 + 6 =? 24) with false. change (0 + 6 + 6 =? 24) with false.
  change (0 + 6 + 6 + 6 =? 24) with false. change (0 + 6 + 6 + 6 + 6 =? 24) with true.
  cbv iota. change (0 * 64) with 0. rewrite N.add_0_l. reflexivity.
Qed.

(* three bytes regrouped as four sextets give the same 24-bit number.  lia sees / and mod through their defining
   equations a = 4 * (a / 4) + a mod 4, a mod 4 < 4 etc. (the zify hook of Base/Prelude.v) *)
Lemma group3 a b c :
  a < 256 -> b < 256 -> c < 256 ->
  (((a / 4 * 64 + ((a mod 4) * 16 + b / 16)) * 64 + ((b mod 16) * 4 + c / 64)) * 64 + c mod 64) = a * 65536 + b * 256 + c.
Proof. intros Ha Hb Hc. lia. Qed.

Lemma flush_accumulate_sext x : forall out,
  bytes x -> flush_buffer (accumulate out 0 0 (sext_of x)) = out ++ x.
Proof.
  induction x as [| a | a b | a b c r IH] using list_ind3; intros out Hb.
  - cbn [sext_of accumulate flush_buffer]. change (0 =? 12) with false. change (0 =? 18) with false.
    cbv iota. rewrite app_nil_r. reflexivity.
  - inversion Hb as [|? ? Ha _]; subst. unfold is_byte in Ha.
    cbn [sext_of]. rewrite !accumulate_cons.
    change (0 + 6 =? 24) with false. change (0 + 6 + 6 =? 24) with false. cbv iota.
    cbn [accumulate flush_buffer]. change (0 + 6 + 6 =? 12) with true. cbv iota.
    f_equal. f_equal. lia.
  - inversion Hb as [|? ? Ha Hb1]; subst. inversion Hb1 as [|? ? Hbb _]; subst. unfold is_byte in *.
    cbn [sext_of]. rewrite !accumulate_cons.
    change (0 + 6 =? 24) with false. change (0 + 6 + 6 =? 24) with false.
    change (0 + 6 + 6 + 6 =? 24) with false. cbv iota.
    cbn [accumulate flush_buffer]. change (0 + 6 + 6 + 6 =? 12) with false.
    change (0 + 6 + 6 + 6 =? 18) with true. cbv iota.
    f_equal. f_equal; [|f_equal]; lia.
  - inversion Hb as [|? ? Ha Hb1]; subst. inversion Hb1 as [|? ? Hbb Hb2]; subst.
    inversion Hb2 as [|? ? Hc Hb3]; subst. unfold is_byte in *.
    cbn [sext_of]. rewrite accumulate4, (group3 a b c Ha Hbb Hc), (IH _ Hb3).
    rewrite <- app_assoc. f_equal. cbn [app]. f_equal; [|f_equal; [|f_equal]]; lia.
Qed.

Theorem tidy_std_encode pad x : bytes x -> tidy (std_encode pad x) = Some x.
Proof.
  intros Hb. unfold tidy. rewrite std_encode_shape.
  destruct (head_not_alpha_pad _ (padding_of_cases pad x)) as [Hh Ha].
  rewrite (span_alpha_app _ _ _ (sextets_map_char _ (sext_of_lt64 x Hb)) Hh).
  rewrite Ha, shape_of_encoding. cbn [andb].
  rewrite (flush_accumulate_sext x [] Hb). reflexivity.
Qed.

Theorem decode_std_encode pad x s :
  bytes x -> strip_whitespace s = std_encode pad x -> decode_to_vec s = inl x.
Proof.
  intros Hb Hs. pose proof (decode_to_vec_tidy s) as H. rewrite Hs, (tidy_std_encode pad x Hb) in H.
  destruct (decode_to_vec s) as [v|e]; [inversion H; reflexivity | discriminate].
Qed.

(* "with whitespace inserted anywhere", as a relation: s is e with ASCII whitespace inserted *)
Inductive ws_inserted : list N -> list N -> Prop :=
| wsi_nil : ws_inserted [] []
| wsi_ws c e s : is_ascii_whitespace c = true -> ws_inserted e s -> ws_inserted e (c :: s)
| wsi_keep c e s : ws_inserted e s -> ws_inserted (c :: e) (c :: s).

Lemma ws_inserted_strip e s : ws_inserted e s -> no_ws e -> strip_whitespace s = e.
Proof.
  induction 1 as [|c e s Hc _ IH|c e s _ IH]; intros He.
  - reflexivity.
  - unfold strip_whitespace in *. cbn [filter]. rewrite Hc. cbn [negb]. exact (IH He).
  - unfold no_ws in He. cbn [forallb] in He. apply andb_true_iff in He. destruct He as [Hc He].
    unfold strip_whitespace in *. cbn [filter]. rewrite Hc. f_equal. exact (IH He).
Qed.

Lemma std_encode_no_ws pad x : bytes x -> no_ws (std_encode pad x).
Proof.
  intros Hb. rewrite std_encode_shape. unfold no_ws. rewrite forallb_app. apply andb_true_iff. split.
  - apply forallb_forall. intros c Hc. apply in_map_iff in Hc. destruct Hc as [v [Hv Hin]].
    pose proof (sext_of_lt64 x Hb) as HF. rewrite Forall_forall in HF. specialize (HF v Hin).
    destruct (is_ascii_whitespace c) eqn:Hw; [|reflexivity].
    apply ws_not_alphabet in Hw. rewrite <- Hv, alphabet_index_of_char in Hw by exact HF. discriminate.
  - destruct (padding_of_cases pad x) as [->|[->| ->]]; reflexivity.
Qed.

Theorem decode_ws_inserted pad x s :
  bytes x -> ws_inserted (std_encode pad x) s -> decode_to_vec s = inl x.
Proof.
  intros Hb Hi. apply (decode_std_encode pad x s Hb).
  exact (ws_inserted_strip _ _ Hi (std_encode_no_ws pad x Hb)).
Qed.
