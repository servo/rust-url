(* Proofs/C06_Steps.v - the elementary edits behind the path: cut the fragment, cut the query,
   append a query, append a fragment, strip trailing spaces of an opaque path.  Each keeps wf_b and
   every observation in front of the edit. *)
From RU Require Import Base.Prelude Model.HostT Model.UrlRecord Model.Parser Model.Setters Model.WF
  Proofs.ListN Proofs.C03_WF Proofs.C06_List Proofs.C06_WFI Proofs.C06_Tail.

Ltac rec_simpl :=
  cbn [ser scheme_end username_end host_start host_end hosti port path_start query_start fragment_start
       set_ser set_query_start set_fragment_start] in *.

Definition cut_fragment (u : url) (f : N) : url := set_fragment_start (set_ser u (truncate (ser u) f)) None.
Definition cut_query (u : url) (q : N) : url := set_query_start (set_ser u (truncate (ser u) q)) None.
Definition add_query (u : url) (x : list N) : url :=
  set_query_start (set_ser u (ser u ++ 63 :: x)) (Some (nlen (ser u))).
Definition add_fragment (u : url) (x : list N) : url :=
  set_fragment_start (set_ser u (ser u ++ 35 :: x)) (Some (nlen (ser u))).

Lemma same_main_set u s q f : same_main u (set_fragment_start (set_query_start (set_ser u s) q) f).
Proof. repeat split. Qed.

Lemma agree_pre_trunc a s : agree_pre a s (nfirstn a s).
Proof. unfold agree_pre. apply nfirstn_nfirstn. lia. Qed.

Lemma byte_eqb_app_at s c x : byte_eqb (s ++ c :: x) (nlen s) c = true.
Proof.
  unfold byte_eqb. rewrite nnth_app_ge by lia. rewrite N.sub_diag. cbn. apply N.eqb_refl.
Qed.

(* generic pieces of qf_ok *)
Lemma qf_facts_of u : wf_b u = true -> qf_ok u.
Proof. intros H. apply wf_b_iff in H. tauto. Qed.

(* cut the fragment *)
Lemma cut_fragment_step dbg u f : wf_b u = true -> fragment_start u = Some f ->
  let u' := cut_fragment u f in
  wf_b u' = true /\ same_front dbg u u' /\ same_main u u' /\ path u' = path u /\ query dbg u' = query dbg u
  /\ query_start u' = query_start u /\ fragment_start u' = None /\ ser u' = nfirstn f (ser u)
  /\ f < nlen (ser u) /\ nnth (ser u) f = Some 35.
Proof.
  intros W Ef u'.
  pose proof (qf_facts_of u W) as (Q1 & Q2 & Q3 & Q4 & Q5).
  pose proof (wf_qf_facts u W) as QF. pose proof (qf_f QF) as F2. rewrite Ef in F2. destruct F2 as (F2a & F2b & F2c).
  pose proof (wf_ps_le_path_end u W) as [P1 P2].
  assert (path_end u <= f) as Hpe.
  { unfold path_end. rewrite Ef in *. destruct (query_start u); lia. }
  destruct (marker_of_path_end u f W Hpe) as [M1 M2].
  assert (nlen (ser u') = f) as Hl.
  { subst u'. unfold cut_fragment, truncate. rec_simpl. apply nlen_nfirstn. lia. }
  assert (path_end u' = path_end u) as Epe.
  { unfold path_end. subst u'. unfold cut_fragment in *. rec_simpl. rewrite Ef.
    destruct (query_start u); [reflexivity|]. exact Hl. }
  assert (agree_pre f (ser u) (ser u')) as Hpre by apply agree_pre_trunc.
  assert (qf_ok u') as Q'.
  { unfold qf_ok. rewrite Epe. subst u'. unfold cut_fragment, truncate in *. rec_simpl.
    rewrite Ef in *.
    split; [|split; [exact I|split; [destruct (query_start u); exact I|split]]].
    - destruct (query_start u) as [q|]; [|exact I]. destruct Q1 as [Q1a Q1b]. split; [exact Q1a|].
      rewrite (pre_byte_eqb f _ _ _ _ Hpre) by lia. exact Q1b.
    - rewrite (pre_piece f _ _ _ _ Hpre) by lia. exact Q4.
    - destruct (query_start u) as [q|]; [|exact I].
      replace f with ((q + 1) + (f - (q + 1))) at 1 by lia. rewrite nskipn_nfirstn_comm. exact Q5. }
  destruct (tail_step dbg u u' f W (same_main_set u _ _ _) Hpre M1 M2 ltac:(lia) ltac:(lia) (or_introl (eq_sym Hl)) Q')
    as (W' & SF & PT).
  split; [exact W'|]. split; [exact SF|]. split; [apply same_main_set|]. split; [apply PT; assumption|].
  repeat split; try (apply byte_eqb_nnth; exact F2b); try exact F2c.
  rewrite (query_eval dbg u' W'), (query_eval dbg u W). subst u'. unfold cut_fragment, truncate in *. rec_simpl.
  destruct (query_start u) as [q|] eqn:Eq; [|reflexivity]. do 2 f_equal.
  unfold piece. cbn [pidx]. rec_simpl. rewrite Eq, Ef, Hl.
  apply (pre_piece f); [exact Hpre | lia].
Qed.

(* cut the query (no fragment present) *)
Lemma cut_query_step dbg u q : wf_b u = true -> fragment_start u = None -> query_start u = Some q ->
  let u' := cut_query u q in
  wf_b u' = true /\ same_front dbg u u' /\ same_main u u' /\ path u' = path u
  /\ query_start u' = None /\ fragment_start u' = None /\ ser u' = nfirstn q (ser u) /\ q < nlen (ser u).
Proof.
  intros W Ef Eq u'.
  pose proof (qf_facts_of u W) as (Q1 & Q2 & Q3 & Q4 & Q5).
  pose proof (wf_qf_facts u W) as QF. pose proof (qf_q QF) as F1. rewrite Eq in F1. destruct F1 as (F1a & F1b & F1c).
  assert (path_end u = q) as Hpe by (unfold path_end; rewrite Eq; reflexivity).
  destruct (marker_of_path_end u q W ltac:(lia)) as [M1 M2].
  assert (nlen (ser u') = q) as Hl.
  { subst u'. unfold cut_query, truncate. rec_simpl. apply nlen_nfirstn. lia. }
  assert (path_end u' = path_end u) as Epe.
  { rewrite Hpe. unfold path_end. subst u'. unfold cut_query in *. rec_simpl. rewrite Ef. exact Hl. }
  assert (agree_pre q (ser u) (ser u')) as Hpre by apply agree_pre_trunc.
  assert (qf_ok u') as Q'.
  { unfold qf_ok. rewrite Epe. subst u'. unfold cut_query, truncate in *. rec_simpl. rewrite Ef.
    repeat split. rewrite (pre_piece q _ _ _ _ Hpre) by lia. exact Q4. }
  destruct (tail_step dbg u u' q W (same_main_set u _ _ _) Hpre M1 M2 ltac:(lia) ltac:(lia) (or_introl (eq_sym Hl)) Q')
    as (W' & SF & PT).
  split; [exact W'|]. split; [exact SF|]. split; [apply same_main_set|]. split; [apply PT; [assumption|lia]|].
  repeat split; try assumption.
Qed.

(* append a query (no query, no fragment present) *)
Lemma add_query_step dbg u x : wf_b u = true -> fragment_start u = None -> query_start u = None ->
  forallb no_h x = true ->
  let u' := add_query u x in
  wf_b u' = true /\ same_front dbg u u' /\ same_main u u' /\ path u' = path u
  /\ query dbg u' = Some (Some x) /\ fragment_start u' = None.
Proof.
  intros W Ef Eq Hx u'.
  pose proof (qf_facts_of u W) as (Q1 & Q2 & Q3 & Q4 & Q5).
  assert (path_end u = nlen (ser u)) as Hpe by (unfold path_end; rewrite Eq, Ef; reflexivity).
  destruct (marker_of_path_end u (nlen (ser u)) W ltac:(lia)) as [M1 M2].
  assert (nlen (ser u') = nlen (ser u) + 1 + nlen x) as Hl.
  { subst u'. unfold add_query. rec_simpl. rewrite nlen_app, nlen_cons. lia. }
  assert (path_end u' = path_end u) as Epe.
  { rewrite Hpe. unfold path_end. subst u'. unfold add_query. rec_simpl. reflexivity. }
  assert (agree_pre (nlen (ser u)) (ser u) (ser u')) as Hpre by apply agree_pre_app_r.
  assert (byte_eqb (ser u') (nlen (ser u)) 63 = true) as Hb by apply byte_eqb_app_at.
  assert (nskipn (nlen (ser u) + 1) (ser u') = x) as Hsk.
  { subst u'. unfold add_query. rec_simpl. rewrite nskipn_app_ge by lia.
    replace (nlen (ser u) + 1 - nlen (ser u)) with 1 by lia. reflexivity. }
  assert (qf_ok u') as Q'.
  { unfold qf_ok. rewrite Epe. rewrite Hpe.
    replace (query_start u') with (Some (nlen (ser u))) by reflexivity.
    replace (fragment_start u') with (@None N) by (subst u'; unfold add_query; rec_simpl; symmetry; exact Ef).
    replace (path_start u') with (path_start u) by reflexivity.
    split; [split; [lia | exact Hb]|]. split; [exact I|]. split; [exact I|]. split.
    - rewrite (pre_piece _ _ _ _ _ Hpre) by lia. rewrite <- Hpe. exact Q4.
    - rewrite Hsk. exact Hx. }
  destruct (tail_step dbg u u' (nlen (ser u)) W (same_main_set u _ _ _) Hpre M1 M2 ltac:(lia) ltac:(lia)
              (or_intror (or_introl Hb)) Q') as (W' & SF & PT).
  split; [exact W'|]. split; [exact SF|]. split; [apply same_main_set|]. split; [apply PT; [assumption|lia]|].
  split; [|subst u'; unfold add_query; rec_simpl; exact Ef].
  rewrite (query_eval dbg u' W').
  replace (query_start u') with (Some (nlen (ser u))) by reflexivity. do 2 f_equal.
  unfold piece. cbn [pidx].
  replace (query_start u') with (Some (nlen (ser u))) by reflexivity.
  replace (fragment_start u') with (@None N) by (subst u'; unfold add_query; rec_simpl; symmetry; exact Ef).
  rewrite Hsk. apply nfirstn_all. lia.
Qed.

(* append a fragment (no fragment present) *)
Lemma add_fragment_step dbg u x : wf_b u = true -> fragment_start u = None ->
  let u' := add_fragment u x in
  wf_b u' = true /\ same_front dbg u u' /\ same_main u u' /\ path u' = path u /\ query dbg u' = query dbg u
  /\ query_start u' = query_start u /\ fragment dbg u' = Some (Some x).
Proof.
  intros W Ef u'.
  pose proof (qf_facts_of u W) as (Q1 & Q2 & Q3 & Q4 & Q5).
  pose proof (wf_qf_facts u W) as QF. pose proof (qf_q QF) as F1.
  pose proof (wf_ps_le_path_end u W) as [P1 P2].
  destruct (marker_of_path_end u (nlen (ser u)) W ltac:(lia)) as [M1 M2].
  assert (nlen (ser u') = nlen (ser u) + 1 + nlen x) as Hl.
  { subst u'. unfold add_fragment. rec_simpl. rewrite nlen_app, nlen_cons. lia. }
  assert (path_end u' = path_end u) as Epe.
  { unfold path_end. subst u'. unfold add_fragment. rec_simpl. rewrite Ef. reflexivity. }
  assert (agree_pre (nlen (ser u)) (ser u) (ser u')) as Hpre by apply agree_pre_app_r.
  assert (byte_eqb (ser u') (nlen (ser u)) 35 = true) as Hb by apply byte_eqb_app_at.
  assert (nskipn (nlen (ser u) + 1) (ser u') = x) as Hsk.
  { subst u'. unfold add_fragment. rec_simpl. rewrite nskipn_app_ge by lia.
    replace (nlen (ser u) + 1 - nlen (ser u)) with 1 by lia. reflexivity. }
  assert (qf_ok u') as Q'.
  { unfold qf_ok. rewrite Epe.
    replace (fragment_start u') with (Some (nlen (ser u))) by reflexivity.
    replace (query_start u') with (query_start u) by reflexivity.
    replace (path_start u') with (path_start u) by reflexivity.
    rewrite Ef in *.
    split; [|split; [split; [lia | exact Hb]|split; [|split]]].
    - destruct (query_start u) as [q|]; [|exact I]. destruct Q1 as [Q1a Q1b]. split; [exact Q1a|].
      destruct F1 as (_ & _ & F1c). rewrite (pre_byte_eqb _ _ _ _ _ Hpre) by lia. exact Q1b.
    - destruct (query_start u) as [q|]; [|exact I]. destruct F1 as (_ & _ & F1c). exact F1c.
    - rewrite (pre_piece _ _ _ _ _ Hpre) by lia. exact Q4.
    - destruct (query_start u) as [q|]; [|exact I]. destruct F1 as (_ & _ & F1c).
      rewrite (pre_piece _ _ _ _ _ Hpre) by lia.
      rewrite nfirstn_all by (rewrite nlen_nskipn; lia). exact Q5. }
  destruct (tail_step dbg u u' (nlen (ser u)) W (same_main_set u _ _ _) Hpre M1 M2 ltac:(lia) ltac:(lia)
              (or_intror (or_intror Hb)) Q') as (W' & SF & PT).
  split; [exact W'|]. split; [exact SF|]. split; [apply same_main_set|]. split; [apply PT; [assumption|lia]|].
  split; [|split; [reflexivity|]].
  - rewrite (query_eval dbg u' W'), (query_eval dbg u W).
    replace (query_start u') with (query_start u) by reflexivity.
    destruct (query_start u) as [q|] eqn:Eq; [|reflexivity]. do 2 f_equal.
    unfold piece. cbn [pidx].
    replace (query_start u') with (Some q) by (symmetry; exact Eq).
    replace (fragment_start u') with (Some (nlen (ser u))) by reflexivity. rewrite Eq, Ef.
    destruct F1 as (_ & _ & F1c). apply (pre_piece (nlen (ser u))); [exact Hpre | lia].
  - rewrite (fragment_eval dbg u' W').
    replace (fragment_start u') with (Some (nlen (ser u))) by reflexivity. do 2 f_equal.
    unfold piece. cbn [pidx].
    replace (fragment_start u') with (Some (nlen (ser u))) by reflexivity.
    rewrite Hsk. apply nfirstn_all. lia.
Qed.

(* trailing-space stripping *)
Definition rstrip (f : N -> bool) (l : list N) : list N := rev (drop_while f (rev l)).

Lemma rstrip_snoc f l x : rstrip f (l ++ [x]) = if f x then rstrip f l else l ++ [x].
Proof.
  unfold rstrip. rewrite rev_app_distr. cbn [rev app drop_while].
  destruct (f x); [reflexivity|]. cbn [rev]. rewrite rev_involutive. reflexivity.
Qed.

Lemma rstrip_prefix f l : exists k, k <= nlen l /\ rstrip f l = nfirstn k l
  /\ (forall i c, nnth l i = Some c -> f c = false -> i < k).
Proof.
  induction l as [|x l IH] using rev_ind.
  - exists 0. repeat split; [lia|]. intros i c H. destruct (N.to_nat i) eqn:E; unfold nnth in H; rewrite E in H; discriminate.
  - rewrite rstrip_snoc. destruct (f x) eqn:Ex.
    + destruct IH as (k & K1 & K2 & K3). exists k. rewrite nlen_app. split; [lia|]. split.
      * rewrite K2. rewrite nfirstn_app_le by exact K1. reflexivity.
      * intros i c H Hc. destruct (N.lt_ge_cases i (nlen l)) as [Hi|Hi].
        -- rewrite nnth_app_lt in H by exact Hi. eapply K3; eassumption.
        -- rewrite nnth_app_ge in H by exact Hi.
           assert (i - nlen l = 0) as E0.
           { apply nnth_lt in H. change (nlen [x]) with 1 in H. lia. }
           rewrite E0 in H. cbn in H. inversion H; subst. congruence.
    + exists (nlen (l ++ [x])). split; [lia|]. split.
      * symmetry. apply nfirstn_all. lia.
      * intros i c H _. eapply nnth_lt. exact H.
Qed.

Lemma cannot_be_a_base_eval u : wf_b u = true ->
  cannot_be_a_base u = Some (negb (byte_eqb (ser u) (scheme_end u + 1) 47)).
Proof.
  intros W. destruct (wf_scheme_facts u W) as (_ & _ & Hlt).
  unfold cannot_be_a_base, u_slice_from. rewrite slice_from_o_some by lia. cbn [bindo].
  do 2 f_equal. unfold byte_eqb. rewrite <- (N.add_0_r (scheme_end u + 1)) at 2. rewrite <- nnth_nskipn.
  destruct (nskipn (scheme_end u + 1) (ser u)) as [|c r]; [reflexivity|].
  cbn [starts_with]. rewrite andb_true_r, N.eqb_sym. reflexivity.
Qed.

(* an opaque-path URL has no authority and no marker: the path starts right after the ':' *)
Lemma opaque_path_start u : wf_b u = true -> byte_eqb (ser u) (scheme_end u + 1) 47 = false ->
  has_authority_b u = false /\ path_start u = scheme_end u + 1.
Proof.
  intros W Hb.
  assert (has_authority_b u = false) as Ha.
  { destruct (has_authority_b u) eqn:Ha; [|reflexivity]. unfold has_authority_b in Ha.
    apply css_bytes in Ha. destruct Ha as (_ & B & _). apply byte_eqb_true_iff in B. congruence. }
  split; [exact Ha|]. pose proof (wf_noauth_facts u W Ha) as F.
  destruct (nf_ps F) as [E|(_ & B & _)]; [exact E | congruence].
Qed.

Lemma strip_step dbg u u' : wf_b u = true -> fragment_start u = None -> query_start u = None ->
  strip_trailing_spaces_from_opaque_path u = Some u' ->
  wf_b u' = true /\ same_front dbg u u' /\ same_main u u' /\ query_start u' = None /\ fragment_start u' = None
  /\ (if byte_eqb (ser u) (scheme_end u + 1) 47 then u' = u
      else exists p, path u = Some p /\ path u' = Some (rstrip (fun c => c =? 32) p)).
Proof.
  intros W Ef Eq H. unfold strip_trailing_spaces_from_opaque_path in H.
  rewrite (cannot_be_a_base_eval u W) in H. cbn [bindo] in H. rewrite Ef, Eq in H.
  destruct (byte_eqb (ser u) (scheme_end u + 1) 47) eqn:Hb; cbn [negb] in H.
  - inversion H; subst u'. repeat split; try assumption.
  - assert (u' = set_ser u (rstrip (fun c => c =? 32) (ser u))) as Hu by (unfold rstrip; congruence). clear H.
    destruct (opaque_path_start u W Hb) as [Ha Eps].
    destruct (rstrip_prefix (fun c => c =? 32) (ser u)) as (k & K1 & K2 & K3).
    destruct (wf_scheme_facts u W) as (Hse & Hcolon & Hselt).
    assert (path_start u <= k) as Hk.
    { apply byte_eqb_nnth in Hcolon. specialize (K3 _ _ Hcolon eq_refl). lia. }
    pose proof (qf_facts_of u W) as (Q1 & Q2 & Q3 & Q4 & Q5).
    assert (path_end u = nlen (ser u)) as Hpe by (unfold path_end; rewrite Eq, Ef; reflexivity).
    assert (ser u' = nfirstn k (ser u)) as Es by (subst u'; rec_simpl; exact K2).
    assert (nlen (ser u') = k) as Hl by (rewrite Es; apply nlen_nfirstn; exact K1).
    assert (agree_pre k (ser u) (ser u')) as Hpre by (rewrite Es; apply agree_pre_trunc).
    assert (same_main u u') as SM by (subst u'; repeat split).
    assert (query_start u' = None) as Eq' by (subst u'; exact Eq).
    assert (fragment_start u' = None) as Ef' by (subst u'; exact Ef).
    assert (path_start u' = path_start u) as Eps' by (subst u'; reflexivity).
    assert (qf_ok u') as Q'.
    { unfold qf_ok, path_end. rewrite Eq', Ef', Eps', Hl. repeat split.
      rewrite (pre_piece k _ _ _ _ Hpre) by lia.
      rewrite Hpe in Q4.
      replace (nfirstn (k - path_start u) (nskipn (path_start u) (ser u)))
        with (nfirstn (k - path_start u) (nfirstn (nlen (ser u) - path_start u) (nskipn (path_start u) (ser u))))
        by (apply nfirstn_nfirstn; lia).
      apply forallb_nfirstn. exact Q4. }
    destruct (tail_step dbg u u' k W SM Hpre Hk ltac:(lia) K1 ltac:(lia) (or_introl (eq_sym Hl)) Q')
      as (W' & SF & _).
    split; [exact W'|]. split; [exact SF|]. split; [exact SM|]. split; [exact Eq'|]. split; [exact Ef'|].
    eexists. split; [apply (path_eval u W)|]. rewrite (path_eval u' W'). f_equal.
    unfold piece. cbn [pidx]. rewrite Eq, Ef, Eq', Ef', Eps', Hl.
    rewrite (pre_piece k _ _ _ _ Hpre) by lia.
    (* rstrip of the path piece = the piece up to k *)
    set (p := nfirstn (nlen (ser u) - path_start u) (nskipn (path_start u) (ser u))).
    assert (p = nskipn (path_start u) (ser u)) as Ep by (apply nfirstn_all; rewrite nlen_nskipn; lia).
    assert (ser u = nfirstn (path_start u) (ser u) ++ p) as Esplit by (rewrite Ep; symmetry; apply nfirstn_nskipn).
    (* compute rstrip on the split serialization *)
    assert (forall a b, (exists c, nnth a (nlen a - 1) = Some c /\ (c =? 32) = false /\ 1 <= nlen a) ->
                        rstrip (fun c => c =? 32) (a ++ b) = a ++ rstrip (fun c => c =? 32) b) as Happ.
    { intros a b (c & Hc1 & Hc2 & Hc3). induction b as [|y b IHb] using rev_ind.
      - rewrite app_nil_r. unfold rstrip at 2. cbn [rev drop_while]. rewrite app_nil_r.
        destruct (rstrip_prefix (fun c => c =? 32) a) as (k' & A1 & A2 & A3).
        specialize (A3 _ _ Hc1 Hc2). rewrite A2. apply nfirstn_all. lia.
      - rewrite app_assoc, !rstrip_snoc. destruct (y =? 32); [exact IHb | rewrite app_assoc; reflexivity]. }
    rewrite Ep.
    assert (rstrip (fun c => c =? 32) (ser u) = nfirstn (path_start u) (ser u) ++ rstrip (fun c => c =? 32) (nskipn (path_start u) (ser u))) as E2.
    { rewrite <- (nfirstn_nskipn (path_start u) (ser u)) at 1. apply Happ.
      exists 58. rewrite nlen_nfirstn by lia. rewrite Eps. replace (scheme_end u + 1 - 1) with (scheme_end u) by lia.
      split; [|split; [reflexivity | lia]].
      rewrite nnth_nfirstn by lia. apply byte_eqb_nnth. exact Hcolon. }
    rewrite K2 in E2.
    assert (nskipn (path_start u) (nfirstn k (ser u)) = rstrip (fun c => c =? 32) (nskipn (path_start u) (ser u))) as E3.
    { rewrite E2. rewrite nskipn_app_ge by (rewrite nlen_nfirstn; lia). rewrite nlen_nfirstn by lia.
      rewrite N.sub_diag. reflexivity. }
    rewrite <- E3. replace k with (path_start u + (k - path_start u)) at 2 by lia.
    rewrite nskipn_nfirstn_comm. reflexivity.
Qed.
