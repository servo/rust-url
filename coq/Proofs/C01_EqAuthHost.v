(* Proofs/C01_EqAuthHost.v - the hypothesis `host_agree` of the C01 authority class holds for the host
   functions of the two sides as they are (Model/Host.v: Host::parse_opaque + Display; Spec/WhatwgHostParse.v:
   the Standard's host parser with isOpaque = true + host serializer) on every string that does not
   start with '['.  For '['-led literals: literal_agree and host_agree_real_all in Proofs/C01_EqSpHost.v, from the IPv6
   parser equality of C09 (C09_ipv6_literal). *)
From RU Require Import Base.Prelude Base.Utf8 Base.Utf8Facts Model.Host Model.UrlRecord Spec.Whatwg
  Spec.WhatwgHost Spec.WhatwgHostParse Proofs.C09_Host Proofs.C01_EqRun Proofs.C01_EqEnc Proofs.C01_EqAuthSpec
  Proofs.C01_EqAuthModel.
Import WhatwgHost.Spec.

Lemma spec_parser_not_bracket idna s : Host.starts_with 91 s = false ->
  spec_host_parser idna true s = spec_opaque_host_parse s.
Proof.
  destruct s as [|c r]; [reflexivity|]. cbn [Host.starts_with]. intros H.
  destruct c as [|p]; [reflexivity|].
  do 7 (destruct p as [p|p|]; try reflexivity). discriminate H.
Qed.

Lemma upe_c0_head s : existsb (fun c => memb c forbidden_host_code_points) s = false ->
  starts_with_cp 58 (upe in_c0_control_set s) = false.
Proof.
  destruct s as [|c r]; [reflexivity|]. cbn [existsb]. intros H. apply orb_false_iff in H. destruct H as [H _].
  rewrite upe_cons. unfold utf8_percent_encode_cp. destruct (in_c0_control_set c).
  - unfold utf8_encode. cbn [flat_map]. rewrite app_nil_r.
    destruct (utf8_encode1 c) as [|b bs] eqn:E; [|reflexivity].
    exfalso. unfold utf8_encode1 in E. repeat (destruct (_ <? _) in E); discriminate E.
  - cbn [app starts_with_cp]. destruct (c =? 58) eqn:E; [|reflexivity]. apply N.eqb_eq in E. subst c. discriminate H.
Qed.

Theorem host_agree_real idna s : usv_list s -> Host.starts_with 91 s = false ->
  host_agree host_parse_opaque host_display (spec_host_parser idna) spec_host_serializer s.
Proof.
  intros Hu Hb. unfold host_agree, host_parsing. rewrite (parse_opaque_spec s Hu Hb), (spec_parser_not_bracket idna s Hb).
  unfold spec_opaque_host_parse.
  destruct (existsb (fun c => memb c forbidden_host_code_points) s) eqn:Ef; [exact I|].
  assert (c0_encode (utf8_encode s) = upe in_c0_control_set s) as Ec.
  { rewrite <- encode_controls by (apply utf8_encode_bytes; exact Hu). apply enc_bridge. exact rel_CONTROLS. }
  pose proof (upe_c0_head s Ef) as Hh. pose proof (upe_nil_iff in_c0_control_set s) as Hn.
  fold (upe in_c0_control_set s). cbn [host_display]. rewrite Ec.
  assert (upe in_c0_control_set s = [] <-> s = []) as Hiff.
  { destruct s as [|c r]; [split; reflexivity|]. cbn [is_nil] in Hn.
    destruct (upe in_c0_control_set (c :: r)); [discriminate Hn | split; intros K; discriminate K]. }
  destruct (upe in_c0_control_set s) as [|a b] eqn:Eu; cbn [spec_host_serializer].
  - repeat split; try reflexivity; try (intros _; apply Hiff; reflexivity).
  - repeat split; try exact Hh; try (intros K; apply Hiff; inversion K); try (intros K; apply Hiff in K; discriminate K);
      try (intros K; discriminate K); try reflexivity.
Qed.
