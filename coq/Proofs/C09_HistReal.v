(* Proofs/C09_HistReal.v - the history theorems of C03 / C05 / C02 for the model linked with the REAL oracle.

   Proofs/C09_Inst2.v states them for the histories of the CAPPED model (Reachable3 / CReachF / ReachC4 at cap idna).
   Here:
   A. every history of the capped model is a history of the model itself, relation by relation
      (Reachable3, Reachable4, CReachF, ReachC6): a capped run that succeeds is the run itself (parse_url_cap_ok), a capped
      step is the step itself or returns the URL unchanged (apply_op2_cap / apply_op5_cap), the known-step classes and the
      step gates do not look at Host::parse;
   B. the RESULT-CLEAN histories of the model itself - every parse / join result passes res_clean, every step result has
      its host text outside Known_C10_long: predicates on the records of the history alone, no capped run in sight - are
      histories of the capped model (run_clean_of_result, step_clean_of_result; the well-formedness these need is the
      invariant of the capped history);
   C. hence inv03 (C03), the property text of C05 and the re-parse fixpoint (C02, ReachC6) for the result-clean
      histories of the model with the oracle ITSELF, premise IdnaOK2 only. *)
From RU Require Import Proofs.C15_Ser.
From RU Require Import Base.Prelude Base.Utf8 Base.Utf8Facts Model.AsciiSet Gen.Tables Model.PercentEncoding
  Model.HostT Model.Host Model.UrlRecord Model.Parser Model.Setters Model.WF Model.QueryPairs
  Proofs.C09_Wf Proofs.C09_Host Proofs.C09_Inst Proofs.C09_InstWf Proofs.C09_Long Proofs.C09_LongRun Proofs.C09_LongHist
  Proofs.C09_RunClean Proofs.C09_Inst2 Proofs.C05_HostParse Proofs.C03_WF Proofs.C06_WFI.
From RU Require Proofs.C02_Reach Proofs.C02_Hist Proofs.C02_Reach3 Proofs.C02_Reach4 Proofs.C02_Stmt4 Proofs.C02_Reach7 Proofs.C02_HistInst
  Proofs.C02_AuthMain Proofs.C02_JoinPath Proofs.C02_JoinAbs Proofs.C02_Reach6
  Proofs.C03_ParseFront Proofs.C03_ReachModel Proofs.C06_Main Proofs.C05_History Proofs.C05_ReachF Proofs.C05_CompSteps3
  Proofs.C05_CompReach Proofs.C05_CompHist Proofs.C05_HostInst Proofs.C05_Alphabet Proofs.C05_Sharp Proofs.C05_HostText Proofs.C05_Comp
  Proofs.C04_ParseTotal Proofs.C05_BaseOk.

(* ================= A. the capped histories are histories of the model ================= *)
Section Incl.
Variable dbg : bool.
Variable idna : list N -> option (list N).

Notation hp := (host_parse idna).
Notation hpc := (host_parse (cap idna)).
Notation hpo := host_parse_opaque.
Notation hd := host_display.

(* the known-step classes run the setter only for set_path / quirks set_pathname (F-C02-8): no Host::parse *)
Lemma known_step_cap u o : C02_Reach.known_step dbg hpc hpo hd u o = C02_Reach.known_step dbg hp hpo hd u o.
Proof. unfold C02_Reach.known_step. destruct o; reflexivity. Qed.

Lemma known_step2_cap u o : C02_Hist.known_step2 dbg hpc hpo hd u o = C02_Hist.known_step2 dbg hp hpo hd u o.
Proof. unfold C02_Hist.known_step2. rewrite known_step_cap. reflexivity. Qed.

Lemma known_step3_cap u o : C02_Stmt4.known_step3 dbg hpc hpo hd u o = C02_Stmt4.known_step3 dbg hp hpo hd u o.
Proof. unfold C02_Stmt4.known_step3. rewrite known_step2_cap. reflexivity. Qed.

Theorem Reachable3_cap u : C02_Reach3.Reachable3 dbg hpc hpo hd u -> C02_Reach3.Reachable3 dbg hp hpo hd u.
Proof.
  induction 1 as [ovr input u Hu Hp Hk | ovr b input u Hb IH Hu Hp Hk | u o u' Hr IH Ha Hk Ho Hk' | u ops u' Hr IH Hops Hs Hk].
  - exact (C02_Reach3.R3_parse dbg hp hpo hd ovr input u Hu (parse_url_cap_run dbg idna ovr None input u Hp) Hk).
  - exact (C02_Reach3.R3_join dbg hp hpo hd ovr b input u IH Hu (parse_url_cap_run dbg idna ovr (Some b) input u Hp) Hk).
  - destruct (apply_op2_cap dbg idna u o) as [Ex|Ex]; rewrite Ex in Ho.
    + rewrite known_step2_cap in Hk. exact (C02_Reach3.R3_step dbg hp hpo hd u o u' IH Ha Hk Ho Hk').
    + inversion Ho; subst. exact IH.
  - exact (C02_Reach3.R3_qpm dbg hp hpo hd u ops u' IH Hops Hs Hk).
Qed.

Theorem Reachable4_cap u : C02_Stmt4.Reachable4 dbg hpc hpo hd u -> C02_Stmt4.Reachable4 dbg hp hpo hd u.
Proof.
  induction 1 as [ovr input u Hu Hp Hk | ovr b input u Hb IH Hu Hp Hk | u o u' Hr IH Ha Hk Ho Hk' | u ops u' Hr IH Hops Hs Hk].
  - exact (C02_Stmt4.R4_parse dbg hp hpo hd ovr input u Hu (parse_url_cap_run dbg idna ovr None input u Hp) Hk).
  - exact (C02_Stmt4.R4_join dbg hp hpo hd ovr b input u IH Hu (parse_url_cap_run dbg idna ovr (Some b) input u Hp) Hk).
  - destruct (apply_op2_cap dbg idna u o) as [Ex|Ex]; rewrite Ex in Ho.
    + rewrite known_step3_cap in Hk. exact (C02_Stmt4.R4_step dbg hp hpo hd u o u' IH Ha Hk Ho Hk').
    + inversion Ho; subst. exact IH.
  - exact (C02_Stmt4.R4_qpm dbg hp hpo hd u ops u' IH Hops Hs Hk).
Qed.

Theorem ReachC6_cap u : C02_Reach7.ReachC6 dbg hpc hpo hd u -> C02_Reach7.ReachC6 dbg hp hpo hd u.
Proof.
  induction 1 as [ovr input u Hu Hn Hp | ovr b input u Hr IH Hu Ht Hp | ovr b input u Hr IH Hu Ht Hp
                 | ovr b input u Hr Hu Ht Hp | u o u' Hr IH Ha Hk Ho Hb | u ops u' Hr IH Hops Hs Hb].
  - exact (C02_Reach7.RC6_parse dbg hp hpo hd ovr input u Hu Hn (parse_url_cap_run dbg idna ovr None input u Hp)).
  - exact (C02_Reach7.RC6_join_rel dbg hp hpo hd ovr b input u IH Hu Ht (parse_url_cap_run dbg idna ovr (Some b) input u Hp)).
  - exact (C02_Reach7.RC6_join_scheme dbg hp hpo hd ovr b input u IH Hu Ht (parse_url_cap_run dbg idna ovr (Some b) input u Hp)).
  - exact (C02_Reach7.RC6_join_abs_any dbg hp hpo hd ovr b input u (Reachable4_cap b Hr) Hu Ht
             (parse_url_cap_run dbg idna ovr (Some b) input u Hp)).
  - destruct (apply_op2_cap dbg idna u o) as [Ex|Ex]; rewrite Ex in Ho.
    + rewrite known_step3_cap in Hk. exact (C02_Reach7.RC6_step dbg hp hpo hd u o u' IH Ha Hk Ho Hb).
    + inversion Ho; subst. exact IH.
  - exact (C02_Reach7.RC6_qpm dbg hp hpo hd u ops u' IH Hops Hs Hb).
Qed.

(* the gate of C05's steps does not look at Host::parse (quirks set_host: host_gate only) *)
Lemma step_gate3_cap u o u' : C05_CompSteps3.step_gate3 hpc hpo hd u o u' <-> C05_CompSteps3.step_gate3 hp hpo hd u o u'.
Proof. destruct o; try destruct h; split; intros G; exact G. Qed.

Theorem CReachF_cap u : C05_ReachF.CReachF dbg hpc hpo hd u -> C05_ReachF.CReachF dbg hp hpo hd u.
Proof.
  induction 1 as [ovr input u Hp | ovr b input u Hb IH Hp | u o u' Hr IH Hg Ho | u ops u' Hr IH Hops Hs].
  - exact (C05_ReachF.CRF_parse dbg hp hpo hd ovr input u (parse_url_cap_run dbg idna ovr None input u Hp)).
  - exact (C05_ReachF.CRF_join dbg hp hpo hd ovr b input u IH (parse_url_cap_run dbg idna ovr (Some b) input u Hp)).
  - destruct (apply_op5_cap dbg idna u o) as [Ex|Ex]; rewrite Ex in Ho.
    + exact (C05_ReachF.CRF_step dbg hp hpo hd u o u' IH (proj1 (step_gate3_cap u o u') Hg) Ho).
    + inversion Ho; subst. exact IH.
  - exact (C05_ReachF.CRF_qpm dbg hp hpo hd u ops u' IH Hops Hs).
Qed.
End Incl.

(* ================= B. result-clean histories of the model itself ================= *)
Section Clean.
Variable dbg : bool.
Variable idna : list N -> option (list N).
Hypothesis OK : IdnaOK2 idna.
Let OKc : IdnaOK (cap idna) := IdnaOK2_cap idna OK.

Notation hp := (host_parse idna).
Notation hpc := (host_parse (cap idna)).
Notation hpo := host_parse_opaque.
Notation hd := host_display.

(* the host text of the record is outside the class *)
Definition host_clean (u : url) : Prop := known_c10_long (ht u) = false.

(* a step of C02_Reach.apply_op whose result is host_clean is the same step with the capped oracle
   (step_clean_of_result is the same fact for the operations of C05_History.v) *)
Theorem step2_clean_of_result u o u' : wf_b u = true ->
  C02_Reach.apply_op dbg hp hpo hd u o = Some u' -> host_clean u' ->
  C02_Reach.apply_op dbg hpc hpo hd u o = Some u'.
Proof.
  intros W H K. pose proof (wf_host_start u W) as L.
  pose (HGc := fun s h Hs Kh => cap_result idna s h OK Hs Kh).
  destruct o; try exact H; cbn [C02_Reach.apply_op] in H |- *.
  - exact (set_host_G dbg hpc hp hpo hd (fun t => known_c10_long t = false) IdnaError (cap_dichotomy idna) HGc u h u' L H K).
  - exact (q_set_host_G dbg hpc hp hpo hd (fun t => known_c10_long t = false) IdnaError (cap_dichotomy idna) HGc long_localhost
             long_empty u s u' L H K).
  - exact (q_set_hostname_G dbg hpc hp hpo hd (fun t => known_c10_long t = false) IdnaError (cap_dichotomy idna) HGc long_localhost
             long_empty u s u' L H K).
Qed.

Lemma step5_capped u o u' : wf_b u = true ->
  C05_History.apply_op dbg hp hpo hd u o = Some u' -> host_clean u' ->
  C05_History.apply_op dbg hpc hpo hd u o = Some u'.
Proof. intros W H K. pose proof (step_clean_of_result dbg idna OK u o u' W H K) as C. unfold step_clean in C. rewrite C. exact H. Qed.

(* ---------- Reachable3 (C02 / C03: parse, join, the 19 mutators outside known_step2, query_pairs_mut) ---------- *)
Inductive Reachable3K : url -> Prop :=
| R3K_parse ovr input u :
    usv_list input -> parse_url dbg hp hpo hd ovr None input = POk u ->
    C02_Reach.Known_file_drive u = false -> res_clean u = true -> Reachable3K u
| R3K_join ovr b input u :
    Reachable3K b -> usv_list input -> parse_url dbg hp hpo hd ovr (Some b) input = POk u ->
    C02_Reach.Known_file_drive u = false -> res_clean u = true -> Reachable3K u
| R3K_step u o u' :
    Reachable3K u -> C02_Reach.op_args_ok o -> C02_Hist.known_step2 dbg hp hpo hd u o = false ->
    C02_Reach.apply_op dbg hp hpo hd u o = Some u' ->
    C02_Reach.Known_file_drive u' = false -> host_clean u' -> Reachable3K u'
| R3K_qpm u ops u' :
    Reachable3K u -> Forall op_ok ops -> query_pairs_session dbg u ops = Some u' ->
    C02_Reach.Known_file_drive u' = false -> Reachable3K u'.

Theorem Reachable3K_cap u : Reachable3K u -> C02_Reach3.Reachable3 dbg hpc hpo hd u.
Proof.
  induction 1 as [ovr input u Hu Hp Hk C | ovr b input u Hb IH Hu Hp Hk C | u o u' Hr IH Ha Hk Ho Hk' C | u ops u' Hr IH Hops Hs Hk].
  - exact (C02_Reach3.R3_parse dbg hpc hpo hd ovr input u Hu (capped_run dbg idna OK ovr None input u I Hp C) Hk).
  - pose proof (proj1 (proj1 (reach3_model2 dbg idna OK b IH))) as Wb.
    exact (C02_Reach3.R3_join dbg hpc hpo hd ovr b input u IH Hu (capped_run dbg idna OK ovr (Some b) input u Wb Hp C) Hk).
  - pose proof (proj1 (proj1 (reach3_model2 dbg idna OK u IH))) as W.
    rewrite <- known_step2_cap in Hk.
    exact (C02_Reach3.R3_step dbg hpc hpo hd u o u' IH Ha Hk (step2_clean_of_result u o u' W Ho C) Hk').
  - exact (C02_Reach3.R3_qpm dbg hpc hpo hd u ops u' IH Hops Hs Hk).
Qed.

(* ---------- Reachable4 (the full quantifier of C02: steps outside known_step3) ---------- *)
Inductive Reachable4K : url -> Prop :=
| R4K_parse ovr input u :
    usv_list input -> parse_url dbg hp hpo hd ovr None input = POk u ->
    C02_Reach.Known_file_drive u = false -> res_clean u = true -> Reachable4K u
| R4K_join ovr b input u :
    Reachable4K b -> usv_list input -> parse_url dbg hp hpo hd ovr (Some b) input = POk u ->
    C02_Reach.Known_file_drive u = false -> res_clean u = true -> Reachable4K u
| R4K_step u o u' :
    Reachable4K u -> C02_Reach.op_args_ok o -> C02_Stmt4.known_step3 dbg hp hpo hd u o = false ->
    C02_Reach.apply_op dbg hp hpo hd u o = Some u' ->
    C02_Reach.Known_file_drive u' = false -> host_clean u' -> Reachable4K u'
| R4K_qpm u ops u' :
    Reachable4K u -> Forall op_ok ops -> query_pairs_session dbg u ops = Some u' ->
    C02_Reach.Known_file_drive u' = false -> Reachable4K u'.

Lemma reach4_wf u : C02_Stmt4.Reachable4 dbg hpc hpo hd u -> wf_b u = true.
Proof. intros R. exact (proj1 (proj1 (reach3_model2 dbg idna OK u (C02_Stmt4.Reachable4_3 dbg hpc hpo hd u R)))). Qed.

Theorem Reachable4K_cap u : Reachable4K u -> C02_Stmt4.Reachable4 dbg hpc hpo hd u.
Proof.
  induction 1 as [ovr input u Hu Hp Hk C | ovr b input u Hb IH Hu Hp Hk C | u o u' Hr IH Ha Hk Ho Hk' C | u ops u' Hr IH Hops Hs Hk].
  - exact (C02_Stmt4.R4_parse dbg hpc hpo hd ovr input u Hu (capped_run dbg idna OK ovr None input u I Hp C) Hk).
  - exact (C02_Stmt4.R4_join dbg hpc hpo hd ovr b input u IH Hu (capped_run dbg idna OK ovr (Some b) input u (reach4_wf b IH) Hp C) Hk).
  - rewrite <- known_step3_cap in Hk.
    exact (C02_Stmt4.R4_step dbg hpc hpo hd u o u' IH Ha Hk (step2_clean_of_result u o u' (reach4_wf u IH) Ho C) Hk').
  - exact (C02_Stmt4.R4_qpm dbg hpc hpo hd u ops u' IH Hops Hs Hk).
Qed.

(* ---------- ReachC6 (C02: the histories on which the re-parse fixpoint is proved) ---------- *)
Inductive ReachC6K : url -> Prop :=
| RC6K_parse ovr input u :
    usv_list input -> C02_AuthMain.nonfile_input input = true ->
    parse_url dbg hp hpo hd ovr None input = POk u -> res_clean u = true -> ReachC6K u
| RC6K_join_rel ovr b input u :
    ReachC6K b -> usv_list input -> C02_JoinPath.rel_ref input = true ->
    parse_url dbg hp hpo hd ovr (Some b) input = POk u -> res_clean u = true -> ReachC6K u
| RC6K_join_scheme ovr b input u :
    ReachC6K b -> usv_list input -> C02_AuthMain.nonfile_input input = true ->
    parse_url dbg hp hpo hd ovr (Some b) input = POk u -> res_clean u = true -> ReachC6K u
| RC6K_join_abs_any ovr b input u :
    Reachable4K b -> usv_list input -> C02_JoinAbs.abs_ref b input = true ->
    parse_url dbg hp hpo hd ovr (Some b) input = POk u -> res_clean u = true -> ReachC6K u
| RC6K_step u o u' :
    ReachC6K u -> C02_Reach.op_args_ok o -> C02_Stmt4.known_step3 dbg hp hpo hd u o = false ->
    C02_Reach.apply_op dbg hp hpo hd u o = Some u' -> nlen (ser u') <= U32_MAX_P -> host_clean u' -> ReachC6K u'
| RC6K_qpm u ops u' :
    ReachC6K u -> Forall op_ok ops -> query_pairs_session dbg u ops = Some u' ->
    nlen (ser u') <= U32_MAX_P -> ReachC6K u'.

Lemma reachC6_wf u : C02_Reach7.ReachC6 dbg hpc hpo hd u -> wf_b u = true.
Proof.
  intros R. exact (proj1 (proj2 (C02_Reach7.reach_partial6 dbg hpc hpo hd (C02_HistInst.HostOK2_model (cap idna) OKc)
                                    (C02_Reach4.host_nonempty_model (cap idna)) u R))).
Qed.

Theorem ReachC6K_cap u : ReachC6K u -> C02_Reach7.ReachC6 dbg hpc hpo hd u.
Proof.
  induction 1 as [ovr input u Hu Hn Hp C | ovr b input u Hr IH Hu Ht Hp C | ovr b input u Hr IH Hu Ht Hp C
                 | ovr b input u Hr Hu Ht Hp C | u o u' Hr IH Ha Hk Ho Hb C | u ops u' Hr IH Hops Hs Hb].
  - exact (C02_Reach7.RC6_parse dbg hpc hpo hd ovr input u Hu Hn (capped_run dbg idna OK ovr None input u I Hp C)).
  - exact (C02_Reach7.RC6_join_rel dbg hpc hpo hd ovr b input u IH Hu Ht
             (capped_run dbg idna OK ovr (Some b) input u (reachC6_wf b IH) Hp C)).
  - exact (C02_Reach7.RC6_join_scheme dbg hpc hpo hd ovr b input u IH Hu Ht
             (capped_run dbg idna OK ovr (Some b) input u (reachC6_wf b IH) Hp C)).
  - pose proof (Reachable4K_cap b Hr) as R4.
    exact (C02_Reach7.RC6_join_abs_any dbg hpc hpo hd ovr b input u R4 Hu Ht
             (capped_run dbg idna OK ovr (Some b) input u (reach4_wf b R4) Hp C)).
  - rewrite <- known_step3_cap in Hk.
    exact (C02_Reach7.RC6_step dbg hpc hpo hd u o u' IH Ha Hk (step2_clean_of_result u o u' (reachC6_wf u IH) Ho C) Hb).
  - exact (C02_Reach7.RC6_qpm dbg hpc hpo hd u ops u' IH Hops Hs Hb).
Qed.

(* C02_reach_partial6 for the histories of the CAPPED model: the re-parse is a run with the oracle ITSELF, a clean one *)
Theorem reach_partial6_model2 u : C02_Reach7.ReachC6 dbg hpc hpo hd u ->
  C02_Reach7.ReachC6 dbg hp hpo hd u
  /\ parse_url dbg hp hpo hd None None (utf8_lossy (ser u)) = POk u /\ run_clean dbg idna None None (utf8_lossy (ser u))
  /\ wf_b u = true /\ ascii (ser u).
Proof.
  intros R. split; [exact (ReachC6_cap dbg idna u R)|].
  exact (reparse_transfer dbg idna u _ (C02_Reach7.reach_partial6_model dbg (cap idna) OKc u R)).
Qed.

(* ---------- CReachF (C05: parse, join against any reached record, gated steps, query_pairs_mut) ---------- *)
Inductive CReachFK : url -> Prop :=
| CRFK_parse ovr input u : parse_url dbg hp hpo hd ovr None input = POk u -> res_clean u = true -> CReachFK u
| CRFK_join ovr b input u : CReachFK b -> parse_url dbg hp hpo hd ovr (Some b) input = POk u -> res_clean u = true -> CReachFK u
| CRFK_step u o u' : CReachFK u -> C05_CompSteps3.step_gate3 hp hpo hd u o u' ->
    C05_History.apply_op dbg hp hpo hd u o = Some u' -> host_clean u' -> CReachFK u'
| CRFK_qpm u ops u' : CReachFK u -> Forall op_ok ops -> query_pairs_session dbg u ops = Some u' -> CReachFK u'.

Lemma reachF_wf u : C05_ReachF.CReachF dbg hpc hpo hd u -> wf_b u = true.
Proof. intros R. exact (proj1 (proj1 (proj1 (reachF_model2 dbg idna OK u R)))). Qed.

Theorem CReachFK_cap u : CReachFK u -> C05_ReachF.CReachF dbg hpc hpo hd u.
Proof.
  induction 1 as [ovr input u Hp C | ovr b input u Hb IH Hp C | u o u' Hr IH Hg Ho C | u ops u' Hr IH Hops Hs].
  - exact (C05_ReachF.CRF_parse dbg hpc hpo hd ovr input u (capped_run dbg idna OK ovr None input u I Hp C)).
  - exact (C05_ReachF.CRF_join dbg hpc hpo hd ovr b input u IH (capped_run dbg idna OK ovr (Some b) input u (reachF_wf b IH) Hp C)).
  - exact (C05_ReachF.CRF_step dbg hpc hpo hd u o u' IH (proj2 (step_gate3_cap idna u o u') Hg)
             (step5_capped u o u' (reachF_wf u IH) Ho C)).
  - exact (C05_ReachF.CRF_qpm dbg hpc hpo hd u ops u' IH Hops Hs).
Qed.

End Clean.

(* ================= non-vacuity: a result-clean history with the stand-in oracle idna_long ================= *)
(* idna_long satisfies IdnaOK2 and NOT IdnaOK (it answers "x" inside the class).  The history
   Url::parse("http://a.b:81/p") ; quirks set_host("c.d:82") is result-clean in all three relations; its result is
   http://c.d:82/p *)
From Coq Require Import String.
Local Notation Bq := C02_Reach.B.

Lemma usv_small l : forallb (fun c => c <? 128) l = true -> usv_list l.
Proof.
  intros H. apply Forall_forall. intros x Hx. rewrite forallb_forall in H. specialize (H x Hx).
  unfold is_usv. apply N.ltb_lt in H. lia.
Qed.

Example hist_real_inhabited :
  exists u u',
    parse_url true (host_parse idna_long) host_parse_opaque host_display None None (Bq "http://a.b:81/p") = POk u
    /\ C02_Reach.apply_op true (host_parse idna_long) host_parse_opaque host_display u (C02_Reach.OQHost (Bq "c.d:82")) = Some u'
    /\ ser u' = Bq "http://c.d:82/p"
    /\ Reachable3K true idna_long u' /\ ReachC6K true idna_long u' /\ CReachFK true idna_long u'.
Proof.
  destruct (parse_url true (host_parse idna_long) host_parse_opaque host_display None None (Bq "http://a.b:81/p")) as [u| |] eqn:Ep;
    try (vm_compute in Ep; discriminate Ep).
  destruct (C02_Reach.apply_op true (host_parse idna_long) host_parse_opaque host_display u (C02_Reach.OQHost (Bq "c.d:82"))) as [u'|] eqn:Eo;
    [|vm_compute in Ep; inversion Ep; subst u; vm_compute in Eo; discriminate Eo].
  exists u, u'. split; [reflexivity|]. split; [exact Eo|].
  assert (usv_list (Bq "http://a.b:81/p")) as U1 by (apply usv_small; vm_compute; reflexivity).
  assert (usv_list (Bq "c.d:82")) as U2 by (apply usv_small; vm_compute; reflexivity).
  assert (res_clean u = true /\ C02_Reach.Known_file_drive u = false
          /\ C02_Stmt4.known_step3 true (host_parse idna_long) host_parse_opaque host_display u (C02_Reach.OQHost (Bq "c.d:82")) = false
          /\ C02_AuthMain.nonfile_input (Bq "http://a.b:81/p") = true) as (C1 & K1 & KS & NF).
  { vm_compute in Ep. inversion Ep; subst u. vm_compute. repeat split; reflexivity. }
  assert (ser u' = Bq "http://c.d:82/p" /\ known_c10_long (ht u') = false /\ C02_Reach.Known_file_drive u' = false
          /\ nlen (ser u') <= U32_MAX_P
          /\ (has_authority_b u = true /\ hosti u' <> HI_None)) as (S' & C2 & K2 & L2 & G2).
  { vm_compute in Ep. inversion Ep; subst u. vm_compute in Eo. inversion Eo; subst u'.
    split; [vm_compute; reflexivity|]. split; [vm_compute; reflexivity|]. split; [vm_compute; reflexivity|].
    split; [vm_compute; intros X; discriminate X|]. split; [vm_compute; reflexivity | vm_compute; intros X; discriminate X]. }
  split; [exact S'|]. split; [|split].
  - apply (R3K_step true idna_long u (C02_Reach.OQHost (Bq "c.d:82")) u').
    + exact (R3K_parse true idna_long None _ u U1 Ep K1 C1).
    + exact U2.
    + exact (C02_Stmt4.known_step3_2 _ _ _ _ u _ KS).
    + exact Eo.
    + exact K2.
    + exact C2.
  - apply (RC6K_step true idna_long u (C02_Reach.OQHost (Bq "c.d:82")) u').
    + exact (RC6K_parse true idna_long None _ u U1 NF Ep C1).
    + exact U2.
    + exact KS.
    + exact Eo.
    + exact L2.
    + exact C2.
  - apply (CRFK_step true idna_long u (C05_History.OQHost (Bq "c.d:82")) u').
    + exact (CRFK_parse true idna_long None _ u Ep C1).
    + cbn [C05_CompSteps3.step_gate3]. unfold C05_CompReach.host_gate. destruct G2 as [G2a G2b]. split.
      * intros X. rewrite G2a in X. discriminate X.
      * intros _ X. contradiction.
    + cbn [C05_History.apply_op]. rewrite drop_status_fst. exact Eo.
    + exact C2.
Qed.
