(* Proofs/C08_Parsed.v - the class premises of C08_absolute_nonfile / C08_relative_parsed read off the RECORD:
   a URL parsed without a base carries the scheme the parser read (C17's parse_url_scheme), so "the input has a
   scheme other than file" is "the record's scheme is not file"; make_relative answers Some only for equal
   schemes, so for the inverse law it is enough that the BASE is not a file URL. *)
From RU Require Import Base.Prelude Base.Utf8 Base.Utf8Facts Model.AsciiSet Gen.Tables Model.PercentEncoding
  Model.HostT Model.UrlRecord Model.Parser Model.Setters Model.WF Model.MakeRelative Model.KnownC08
  Proofs.ListN Proofs.C02_Parts Proofs.C02_Reach Proofs.C02_AuthParts Proofs.C02_AuthMain Proofs.C17_Scheme
  Proofs.C08_RelCanon Proofs.C08_AbsNonfile Proofs.C08_RelAuth.

Lemma scheme_b_scheme u s : scheme u = Some s -> s = b_scheme u.
Proof.
  unfold scheme, u_slice_to, slice_to_o, b_scheme. destruct (scheme_end u <=? nlen (ser u)); [|discriminate].
  intros H. inversion H. reflexivity.
Qed.

(* make_relative answers Some(reference) only when the two scheme slices are equal *)
Lemma make_relative_scheme dbg b t r : make_relative dbg b t = Some (Some r) -> b_scheme b = b_scheme t.
Proof.
  intros H. unfold make_relative in H.
  destruct (cannot_be_a_base b) as [cb|]; cbn [bindo] in H; [|discriminate].
  destruct (if cb then Some true else cannot_be_a_base t) as [ct|]; cbn [bindo] in H; [|discriminate].
  destruct (cb || ct); [discriminate|].
  destruct (scheme b) as [sb|] eqn:Sb; cbn [bindo] in H; [|discriminate].
  destruct (scheme t) as [st|] eqn:St; cbn [bindo] in H; [|discriminate].
  destruct (list_eqb sb st) eqn:E; cbn [negb] in H; [|discriminate].
  apply list_eqb_spec in E. rewrite <- (scheme_b_scheme b sb Sb), <- (scheme_b_scheme t st St). exact E.
Qed.

Section Parsed.
Variables (dbg : bool) (hp hpo : list N -> result host) (hd : host -> list N).

(* the class of the input, read off the record *)
Lemma parsed_nonfile_input input u : parse_url dbg hp hpo hd None None input = POk u ->
  nonfile_input input = negb (st_is_file (scheme_type_of (b_scheme u))).
Proof.
  intros Hp. unfold nonfile_input.
  destruct (parse_scheme CUrlParser (input_new_trim_c0 input)) as [[sch rem]|] eqn:Hs.
  - pose proof (parse_url_scheme dbg hp hpo hd None input sch rem u Hs Hp) as E. unfold b_scheme. rewrite E. reflexivity.
  - unfold parse_url in Hp. cbv zeta in Hp. rewrite Hs in Hp. discriminate.
Qed.

End Parsed.
