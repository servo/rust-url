(* Proofs/C08_RelNoAuth.v - the inverse law for the class where C02 proves the canonical form of EVERY parse
   result (C02_L1_noauth): non-special URLs without authority, "scheme:/path".  Both records in C02's form
   noauth_url; inside MR_ok the "/." marker is absent (a path starting with "//" has an empty first segment:
   class 43), so the records are hier_url's with pre = "scheme:" and C08_RelLaw applies. *)
From RU Require Import Base.Prelude Base.Utf8 Base.Utf8Facts Model.AsciiSet Gen.Tables Model.PercentEncoding
  Model.HostT Model.UrlRecord Model.Parser Model.Setters Model.WF Model.MakeRelative Model.KnownC08
  Proofs.ListN Proofs.C14_Enc Proofs.C02_Enc Proofs.C02_Parts Proofs.C02_Opaque Proofs.C02_Path Proofs.C02_PathL1
  Proofs.C08_Input Proofs.C08_Simple Proofs.C08_Contain Proofs.C08_RelEval Proofs.C08_RelPath Proofs.C08_RelJoin
  Proofs.C08_RelMr Proofs.C08_RelLaw Proofs.C08_RelCanon.

Lemma noauth_is_hier sch segs last q f :
  noauth_url sch (path_text segs last) q f
  = hier_url ((sch ++ [58]) ++ marker_of (path_text segs last)) (nlen sch)
             (nlen (sch ++ [58])) (nlen (sch ++ [58])) (nlen (sch ++ [58])) HI_None None segs last q f.
Proof.
  unfold noauth_url, hier_url, noauth_ser, noauth_pre.
  rewrite (app_assoc (sch ++ [58]) (marker_of (path_text segs last)) (path_text segs last)).
  rewrite (nlen_app (sch ++ [58]) (marker_of (path_text segs last))). reflexivity.
Qed.

Lemma good_segs_no_slash segs : forallb good_seg segs = true -> forallb no_slash segs = true.
Proof. apply forallb_impl. intros s H. destruct (good_seg_parts s H) as (_ & Hn & _). exact Hn. Qed.

Lemma seg_ok_nonspecial s : good_seg s = true -> seg_ok STNotSpecial s = true.
Proof.
  intros H. unfold seg_ok. rewrite H. cbn [andb]. apply forallb_forall. intros c _.
  unfold no_spec_bslash. cbn [st_is_special]. rewrite andb_false_r. reflexivity.
Qed.

Lemma segs_ok_nonspecial segs : forallb good_seg segs = true -> forallb (seg_ok STNotSpecial) segs = true.
Proof. apply forallb_impl. exact seg_ok_nonspecial. Qed.

Lemma noauth_u_pre sch T q f : u_pre (noauth_url sch T q f) = (sch ++ [58]) ++ marker_of T.
Proof.
  unfold u_pre, noauth_url, noauth_ser, noauth_pre. cbn [path_start ser]. rewrite <- nlen_app.
  replace (((sch ++ [58]) ++ marker_of T ++ T) ++ qf_text q f) with (((sch ++ [58]) ++ marker_of T) ++ T ++ qf_text q f)
    by (rewrite <- !app_assoc; reflexivity).
  apply nfirstn_app_len.
Qed.

(* inside MR_ok neither of two authority-less canonical records carries the "/." marker, and the schemes agree *)
Lemma noauth_pair_front schb bsegs blast bq bf scht tsegs tlast tq tf :
  noauth_ok schb bsegs blast bq bf -> noauth_ok scht tsegs tlast tq tf ->
  mr_ok (noauth_url schb (path_text bsegs blast) bq bf) (noauth_url scht (path_text tsegs tlast) tq tf) = true ->
  marker_of (path_text bsegs blast) = [] /\ marker_of (path_text tsegs tlast) = [] /\ scht = schb.
Proof.
  intros Kb Kt Hok.
  destruct (noauth_url_wf schb bsegs blast bq bf Kb) as (_ & Cb & _).
  destruct (noauth_url_wf scht tsegs tlast tq tf Kt) as (_ & Ct & _).
  pose proof (mr_ok_pre _ _ Hok) as Epre. rewrite !noauth_u_pre in Epre.
  destruct Kb as [_ _ Hbs Hbl _ _ _ _ _]. destruct Kt as [_ _ Hts Htl _ _ _ _ _].
  destruct (good_seg_parts blast Hbl) as (_ & Hbln & _). destruct (good_seg_parts tlast Htl) as (_ & Htln & _).
  pose proof (good_segs_no_slash bsegs Hbs) as Hbsn. pose proof (good_segs_no_slash tsegs Hts) as Htsn.
  rewrite (noauth_is_hier schb) in Hok, Cb. rewrite (noauth_is_hier scht) in Hok, Ct.
  rewrite <- Epre in Hok, Ct.
  destruct (mr_ok_hier _ _ _ _ _ _ _ _ _ _ _ _ _ _ _ _ _ _ _ _ _ Cb Ct Hbsn Hbln Htsn Htln Hok) as (Nb & Nt & _).
  assert (marker_of (path_text bsegs blast) = []) as Mb by (unfold marker_of, path_text; rewrite path_no_ss by assumption; reflexivity).
  assert (marker_of (path_text tsegs tlast) = []) as Mt by (unfold marker_of, path_text; rewrite path_no_ss by assumption; reflexivity).
  split; [exact Mb|]. split; [exact Mt|].
  rewrite Mb, Mt, !app_nil_r in Epre. apply app_inj_tail in Epre. symmetry. exact (proj1 Epre).
Qed.

Section NoAuthLaw.
Variables (dbg : bool) (hp hpo : list N -> result host) (hd : host -> list N).

Theorem relative_noauth schb bsegs blast bq bf scht tsegs tlast tq tf r :
  C02_Path.noauth_ok schb bsegs blast bq bf -> C02_Path.noauth_ok scht tsegs tlast tq tf ->
  mr_ok (noauth_url schb (path_text bsegs blast) bq bf) (noauth_url scht (path_text tsegs tlast) tq tf) = true ->
  make_relative dbg (noauth_url schb (path_text bsegs blast) bq bf) (noauth_url scht (path_text tsegs tlast) tq tf)
  = Some (Some r) ->
  parse_url dbg hp hpo hd None (Some (noauth_url schb (path_text bsegs blast) bq bf)) r
  = POk (noauth_url scht (path_text tsegs tlast) tq tf).
Proof.
  intros Kb Kt Hok Hmr.
  destruct (noauth_pair_front _ _ _ _ _ _ _ _ _ _ Kb Kt Hok) as (Mb & Mt & ->).
  destruct Kb as [_ _ Hbs Hbl _ _ _ _ _]. destruct Kt as [_ Hns Hts Htl Hq Hf _ Bq Bf].
  destruct (good_seg_parts blast Hbl) as (_ & Hbln & _).
  pose proof (good_segs_no_slash bsegs Hbs) as Hbsn.
  rewrite !noauth_is_hier, Mb, Mt, !app_nil_r in *.
  apply relative_hier; [|exact Hok | exact Hmr].
  assert (nfirstn (nlen schb) (schb ++ [58]) = schb) as Es by apply nfirstn_app_len.
  constructor; rewrite ?Es, ?Hns; try assumption.
  - right. exists schb. split; reflexivity.
  - reflexivity.
  - apply segs_ok_nonspecial. exact Hts.
  - apply seg_ok_nonspecial. exact Htl.
  - unfold noauth_pre in Bq. rewrite Mt in Bq. exact Bq.
  - unfold noauth_pre in Bf. rewrite Mt in Bf. exact Bf.
Qed.

(* ... for parse results: the premises are C02's description of the class on the input *)
Theorem relative_noauth_parsed bi ti schb remb remb' scht remt remt' b t r :
  usv_list bi -> usv_list ti ->
  parse_scheme CUrlParser (input_new_trim_c0 bi) = Some (schb, remb) -> scheme_type_of schb = STNotSpecial ->
  inp_split_prefix_str s_ss remb = None -> inp_split_prefix_char 47 remb = Some remb' ->
  parse_scheme CUrlParser (input_new_trim_c0 ti) = Some (scht, remt) -> scheme_type_of scht = STNotSpecial ->
  inp_split_prefix_str s_ss remt = None -> inp_split_prefix_char 47 remt = Some remt' ->
  parse_url dbg hp hpo hd None None bi = POk b -> parse_url dbg hp hpo hd None None ti = POk t ->
  mr_ok b t = true -> make_relative dbg b t = Some (Some r) ->
  parse_url dbg hp hpo hd None (Some b) r = POk t.
Proof.
  intros Hub Hut B1 B2 B3 B4 T1 T2 T3 T4 Pb Pt Hok Hmr.
  destruct (parse_noauth_out dbg hp hpo hd None bi schb remb remb' b Hub B1 B2 B3 B4 Pb) as (bsegs & blast & bq & bf & Kb & ->).
  destruct (parse_noauth_out dbg hp hpo hd None ti scht remt remt' t Hut T1 T2 T3 T4 Pt) as (tsegs & tlast & tq & tf & Kt & ->).
  apply relative_noauth; assumption.
Qed.

End NoAuthLaw.
