(* Proofs/C09_V6total.v - no panic and no fuel exhaustion of the '['-led branch of Host::parse and
   Host::parse_opaque, hence of both entry points on every input; what the two entry points return on
   '['-led inputs, in terms of the Standard's IPv6 parser. *)
From RU Require Import Base.Prelude Base.Utf8 Model.HostT Model.Host Spec.WhatwgHost Proofs.C09_Reject
  Proofs.C09_V6sim.

(* ------------------------------------------------------------------ totality of the IPv6 literal branch *)

Lemma parse_ipv6addr_no_panic m : no_panic (parse_ipv6addr m).
Proof. rewrite ipv6_parse_spec_bytes. destruct (Spec.ipv6_parse m); exact I. Qed.

Lemma bracketed_no_panic input : no_panic (bracketed input).
Proof.
  unfold bracketed. destruct (negb (ends_with 93 input)); [exact I|].
  pose proof (parse_ipv6addr_no_panic (utf8_encode (removelast (tl input)))) as H.
  destruct (parse_ipv6addr (utf8_encode (removelast (tl input)))); exact H.
Qed.

Theorem total_full : total_statement.
Proof.
  destruct total_partial as [T1 T2]. split.
  - intros idna input. destruct (starts_with 91 input) eqn:E; [|exact (T1 idna input E)].
    unfold host_parse_x. rewrite E. apply bracketed_no_panic.
  - intros input. destruct (starts_with 91 input) eqn:E; [|exact (T2 input E)].
    unfold host_parse_opaque_x. rewrite E. apply bracketed_no_panic.
Qed.

(* ------------------------------------------------------------------ what '['-led inputs return *)

Definition literal_result (input : list N) : result host :=
  if ends_with 93 input then
    match Spec.ipv6_parse (removelast (tl input)) with
    | Some a => Ok (HIpv6 a)
    | None => Err InvalidIpv6Address
    end
  else Err InvalidIpv6Address.

Lemma bracketed_spec input : xr_result (bracketed input) = literal_result input.
Proof.
  unfold bracketed, literal_result. destruct (ends_with 93 input); [|reflexivity]. cbn [negb].
  rewrite ipv6_parse_spec_str. destruct (Spec.ipv6_parse (removelast (tl input))); reflexivity.
Qed.

(* both entry points, every input that starts with '[' (no hypothesis on the IDNA oracle: it is not asked) *)
Theorem literal_spec idna input : starts_with 91 input = true ->
  host_parse idna input = literal_result input /\ host_parse_opaque input = literal_result input.
Proof.
  intros H. unfold host_parse, host_parse_opaque, host_parse_x, host_parse_opaque_x. rewrite H.
  split; apply bracketed_spec.
Qed.

(* "[::1.2.3.4]", "[1::e-acute]" (a non-ASCII code point fails on both sides), "[1:2:3:4:5:6:7:8" *)
Example literal_examples :
  starts_with 91 [91; 58; 58; 49; 46; 50; 46; 51; 46; 52; 93] = true
  /\ literal_result [91; 58; 58; 49; 46; 50; 46; 51; 46; 52; 93] = Ok (HIpv6 [0; 0; 0; 0; 0; 0; 258; 772])
  /\ literal_result [91; 49; 58; 58; 233; 93] = Err InvalidIpv6Address
  /\ parse_ipv6addr (utf8_encode [49; 58; 58; 233]) = XErr InvalidIpv6Address
  /\ literal_result [91; 49; 58; 50; 58; 51; 58; 52; 58; 53; 58; 54; 58; 55; 58; 56] = Err InvalidIpv6Address.
Proof. vm_compute. repeat split. Qed.
