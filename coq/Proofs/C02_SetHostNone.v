(* Proofs/C02_SetHostNone.v - L2 for Url::set_host(None) on the canonical forms.
   On a record  C ++ M ++ W  (C = scheme ":", M = "//" userinfo host port, W = path ++ query ++ fragment) that has a host
   and a non-special scheme the setter cuts M out: the result is  C ++ W  (C ++ "/" when W is empty) with every offset
   in front of the path at |C|.  With debug assertions the code asserts that a '/' follows M: on an EMPTY path followed
   by a query or fragment (a://h?q) it panics - finding F-C04-1, no Url value results; a release build gives a:?q, the
   canonical opaque record with an empty path.
   Canon records: opaque path - refused; no authority, empty host, special scheme - unchanged; authority with a host:
   scheme ":" path [?q] [#f] without authority, outside F-C02-2 (path starting with "//", the "/." marker is not
   inserted) and F-C03-5 (marker). *)
From RU Require Import Base.Prelude Base.Utf8 Base.Utf8Facts Model.AsciiSet Gen.Tables
  Model.PercentEncoding Model.HostT Model.UrlRecord Model.Parser Model.Setters Model.WF
  Proofs.ListN Proofs.C02_Enc Proofs.C02_Parts Proofs.C02_Opaque Proofs.C02_Path Proofs.C02_PathL1 Proofs.C02_Reach
  Proofs.C02_AuthParts Proofs.C02_Auth Proofs.C02_AuthWf Proofs.C02_AuthSp Proofs.C02_AuthMain Proofs.C02_SetQF
  Proofs.C02_Canon Proofs.C02_SetPort Proofs.C02_Hist Proofs.C02_SetHostFrame Proofs.C02_SetHostCanon Proofs.C02_SetCred.
Open Scope N_scope.
Open Scope list_scope.

Lemma starts_with_app_false p a b : starts_with p (a ++ b) = false -> starts_with p a = false.
Proof.
  revert a. induction p as [|x p IH]; intros a H; [discriminate H|].
  destruct a as [|y a]; [reflexivity|]. cbn [app starts_with] in *.
  destruct (x =? y); [exact (IH a H) | reflexivity].
Qed.

Section Frame.
Variable dbg : bool.
Variable hp hpo : list N -> result host.
Variable hd : host -> list N.

Variables (sch M' : list N) (ue hs he : N) (hi : host_internal) (pt : option N).
Notation C := (sch ++ [58]).
Notation M := (47 :: 47 :: M').

Definition w0 (W : list N) : list N := match W with [] => [47] | _ => W end.

(* the record: pre = C ++ M ++ T, path_start = |C ++ M| *)
Definition hn_url (T : list N) (q f : option (list N)) : url :=
  qf_url ((C ++ M) ++ T) (nlen sch) ue hs he hi pt (nlen (C ++ M)) q f.

Definition hn_result (T : list N) (q f : option (list N)) : url :=
  mkUrl (C ++ w0 (T ++ qf_text q f)) (nlen sch) (nlen C) (nlen C) (nlen C) HI_None None (nlen C)
        (qf_qs (nlen (C ++ T)) q) (qf_fs (nlen (C ++ T)) q f).

Theorem set_host_none_frame T q f : hi <> HI_None -> scheme_type_of sch = STNotSpecial ->
  set_host dbg hp hpo hd (hn_url T q f) None
  = if dbg && negb (C02_AuthWf.head_is (w0 (T ++ qf_text q f)) 47) then None else Some (hn_result T q f, SOk).
Proof.
  intros Hhi Hns. set (W := T ++ qf_text q f).
  assert (ser (hn_url T q f) = (C ++ M) ++ W) as Es by (unfold hn_url, qf_url, W; cbn [ser]; rewrite <- !app_assoc; reflexivity).
  unfold set_host.
  assert (cannot_be_a_base (hn_url T q f) = Some false) as ->.
  { unfold hn_url, qf_url. rewrite <- !app_assoc. apply cbb_prefix. }
  cbn [bindo].
  assert (u_scheme_type (hn_url T q f) = Some STNotSpecial) as ->.
  { unfold u_scheme_type, hn_url, qf_url. rewrite <- !app_assoc, scheme_prefix. cbn [bindo]. rewrite Hns. reflexivity. }
  cbn [bindo st_is_special andb st_is_file].
  assert (has_host (hn_url T q f) = true) as -> by (unfold has_host, hn_url, qf_url; cbn [hosti]; destruct hi; [contradiction | reflexivity ..]).
  rewrite Es. change (path_start (hn_url T q f)) with (nlen (C ++ M)). change (scheme_end (hn_url T q f)) with (nlen sch).
  change (query_start (hn_url T q f)) with (qf_qs (nlen ((C ++ M) ++ T)) q).
  change (fragment_start (hn_url T q f)) with (qf_fs (nlen ((C ++ M) ++ T)) q f).
  assert ((if nlen ((C ++ M) ++ W) =? nlen (C ++ M) then ((C ++ M) ++ W) ++ [47] else (C ++ M) ++ W) = (C ++ M) ++ w0 W) as ->.
  { destruct W as [|c r]; cbn [w0].
    - rewrite app_nil_r, N.eqb_refl. reflexivity.
    - replace (nlen ((C ++ M) ++ c :: r) =? nlen (C ++ M)) with false; [reflexivity|].
      symmetry. apply N.eqb_neq. rewrite (nlen_app _ (c :: r)), nlen_cons. lia. }
  unfold dbg_byte_is, byte_is, byte_at, set_ser. cbn [ser].
  assert (nnth ((C ++ M) ++ w0 W) (nlen sch) = Some 58) as ->.
  { rewrite <- !app_assoc. cbn [app]. apply nnth_app_at_loc. }
  assert (exists c r, w0 W = c :: r) as (c & r & Ew) by (destruct W as [|c r]; cbn [w0]; [exists 47, [] | exists c, r]; reflexivity).
  rewrite Ew. rewrite nnth_app_at_loc. cbn [bindo C02_AuthWf.head_is]. rewrite N.eqb_refl. cbn [assert_o].
  assert ((if dbg then Some tt else Some tt) = Some tt) as -> by (destruct dbg; reflexivity). cbn [bindo].
  assert ((if dbg then assert_o (c =? 47) else Some tt) = if dbg && negb (c =? 47) then None else Some tt) as ->
    by (destruct dbg; [destruct (c =? 47)|]; reflexivity).
  destruct (dbg && negb (c =? 47)); [reflexivity|]. cbn [bindo].
  replace ((nlen sch + 1 <=? nlen (C ++ M)) && (nlen (C ++ M) <=? nlen ((C ++ M) ++ c :: r))) with true
    by (symmetry; rewrite !nlen_app; apply andb_true_iff; split; apply N.leb_le; change (nlen [58]) with 1; lia).
  cbn [assert_o bindo].
  replace (nlen (C ++ M) - (nlen sch + 1)) with (nlen M) by (rewrite !nlen_app; change (nlen [58]) with 1; lia).
  unfold sub_off_opt. rewrite adjust_qf_qs, adjust_qf_fs by (rewrite !nlen_app; lia). cbn [bindo].
  replace (nlen ((C ++ M) ++ T) - nlen M + 0) with (nlen (C ++ T)) by (rewrite !nlen_app; lia).
  unfold hn_result. fold W. rewrite Ew.
  replace (nlen sch + 1) with (nlen C) by (rewrite nlen_app; reflexivity).
  rewrite nskipn_app_len. rewrite <- (app_assoc C M). rewrite nfirstn_app_len. reflexivity.
Qed.
End Frame.

Lemma qf_qs_mono n m q B : n <= m -> opt_le (qf_qs m q) B -> opt_le (qf_qs n q) B.
Proof. destruct q; cbn [qf_qs opt_le]; [lia | tauto]. Qed.
Lemma qf_fs_mono n m q f B : n <= m -> opt_le (qf_fs m q f) B -> opt_le (qf_fs n q f) B.
Proof. destruct f; cbn [qf_fs opt_le]; [lia | tauto]. Qed.

Section NoneCanon.
Variable dbg : bool.
Variable hp hpo : list N -> result host.
Variable hd : host -> list N.
Hypothesis HRT : HostRT hp hpo hd.

Notation auth_ok := (auth_ok hp hpo hd).
Notation auth_url := (auth_url hd).
Notation Canon := (Canon hp hpo hd).

Lemma auth_url_hn sch ui h pt p q f :
  auth_url sch ui h pt p q f
  = hn_url sch (ui_text ui ++ hd h ++ port_text pt) (nlen sch + 3 + ui_ulen ui) (nlen sch + 3 + nlen (ui_text ui))
           (nlen sch + 3 + nlen (ui_text ui) + nlen (hd h)) (hi_of_host h) pt (pth_text p) q f.
Proof.
  rewrite auth_url_qf. unfold hn_url.
  assert (auth_front hd sch ui h pt = (sch ++ [58]) ++ 47 :: 47 :: ui_text ui ++ hd h ++ port_text pt) as E
    by (unfold auth_front; rewrite <- !app_assoc; reflexivity).
  unfold auth_pre. rewrite E. reflexivity.
Qed.

(* the three shapes of the result *)
Lemma hn_result_path sch segs last q f : starts_with s_ss (path_text segs last) = false ->
  hn_result sch (path_text segs last) q f = noauth_url sch (path_text segs last) q f.
Proof.
  intros Hm. assert (w0 (path_text segs last ++ qf_text q f) = path_text segs last ++ qf_text q f) as Ew by reflexivity.
  unfold hn_result. rewrite Ew. set (T := path_text segs last) in *.
  unfold noauth_url, noauth_ser, noauth_pre, marker_of. rewrite Hm. cbn [app]. change (nlen (@nil N)) with 0.
  rewrite N.add_0_r. rewrite (app_assoc (sch ++ [58]) T). reflexivity.
Qed.

Lemma hn_result_empty sch : hn_result sch [] None None = noauth_url sch (path_text [] []) None None.
Proof.
  unfold hn_result, noauth_url, noauth_ser, noauth_pre, marker_of, path_text. cbn [segs_text map concat app starts_with s_ss].
  cbn [qf_text qf_qtext qf_ftext app w0 qf_qs qf_fs nlen length]. rewrite !app_nil_r.
  replace (47 =? 47) with true by reflexivity. cbn [andb]. rewrite N.add_0_r. reflexivity.
Qed.

Lemma hn_result_opaque sch q f : qf_text q f <> [] -> hn_result sch [] q f = opaque_url sch [] q f.
Proof.
  intros Hne. unfold hn_result, opaque_url, opaque_ser, opaque_pre. cbn [app]. rewrite !app_nil_r.
  destruct (qf_text q f) as [|c r] eqn:E; [contradiction|]. reflexivity.
Qed.

Lemma auth_to_noauth sch ui h pt segs last q f : auth_ok STNotSpecial sch ui h pt (Some (segs, last)) q f ->
  starts_with s_ss (path_text segs last) = false -> noauth_ok sch segs last q f.
Proof.
  intros K Hm. destruct K as [Ksch Kst Kui Kh Kemp Kpt Kp Kq Kf Kb Kbq Kbf]. destruct Kp as [Kp1 Kp2].
  assert (nlen (noauth_pre sch (path_text segs last)) <= nlen (auth_pre hd sch ui h pt (Some (segs, last)))) as Hle.
  { unfold noauth_pre, marker_of, auth_pre. rewrite Hm. cbn [app pth_text]. rewrite !nlen_app, front_len. change (nlen [58]) with 1. lia. }
  constructor; try assumption.
  - rewrite front_len in Kb. rewrite nlen_app. change (nlen [58]) with 1. lia.
  - exact (qf_qs_mono _ _ _ _ Hle Kbq).
  - exact (qf_fs_mono _ _ _ _ _ Hle Kbf).
Qed.

Lemma auth_to_noauth_empty sch ui h pt : auth_ok STNotSpecial sch ui h pt None None None -> noauth_ok sch [] [] None None.
Proof.
  intros K. destruct K as [Ksch Kst Kui Kh Kemp Kpt Kp Kq Kf Kb Kbq Kbf].
  constructor; try assumption; try exact I; try reflexivity.
  rewrite front_len in Kb. rewrite nlen_app. change (nlen [58]) with 1. lia.
Qed.

Lemma auth_to_opaque sch ui h pt q f : auth_ok STNotSpecial sch ui h pt None q f -> opaque_ok sch [] q f.
Proof.
  intros K. destruct K as [Ksch Kst Kui Kh Kemp Kpt Kp Kq Kf Kb Kbq Kbf].
  assert (nlen (opaque_pre sch []) <= nlen (auth_pre hd sch ui h pt None)) as Hle.
  { unfold opaque_pre, auth_pre. cbn [pth_text]. rewrite !app_nil_r, front_len, nlen_app. change (nlen [58]) with 1. lia. }
  constructor; try assumption; try reflexivity.
  - rewrite front_len in Kb. rewrite nlen_app. change (nlen [58]) with 1. lia.
  - exact (qf_qs_mono _ _ _ _ Hle Kbq).
  - exact (qf_fs_mono _ _ _ _ _ Hle Kbf).
Qed.

Lemma qf_text_head q f : qf_text q f <> [] -> C02_AuthWf.head_is (qf_text q f) 47 = false.
Proof. destruct q as [x|]; [reflexivity|]. destruct f as [y|]; [reflexivity|]. intros H. contradiction H. reflexivity. Qed.

Theorem set_host_none_Canon u u' s : Canon u ->
  known_step2 dbg hp hpo hd u (OSetHost None) = false ->
  set_host dbg hp hpo hd u None = Some (u', s) -> Canon u'.
Proof.
  intros C Hk. destruct (host_op_classes dbg hp hpo hd u _ C Hk eq_refl) as [Hc | (st & sch & ui & pt & Hh)].
  - unfold set_host. rewrite Hc. cbn [bindo]. intros E. inversion E; subst. exact C.
  - unfold known_step2, known_step in Hk. rewrite !orb_false_iff in Hk. destruct Hk as [[[[_ K2] _] _] _]. unfold Known_F_C02_2 in K2.
    destruct (hostable_facts hp hpo hd HRT u st sch ui pt Hh) as (Es & Est & Hnf & Hc & _).
    assert (has_host u = false \/ st_is_special st = true -> set_host dbg hp hpo hd u None = Some (u', s) -> Canon u') as Hsame.
    { intros Hor. unfold set_host. rewrite Hc. cbn [bindo]. rewrite (u_scheme_type_of u sch Es). cbn [bindo]. rewrite Est, Hnf.
      cbn [negb]. rewrite andb_true_r. destruct (has_host u); [|intros E; inversion E; subst; exact C].
      destruct Hor as [Hor|Hor]; [discriminate Hor|]. rewrite Hor. intros E. inversion E; subst. exact C. }
    destruct Hh as [sch0 segs last q f K Hm | sch0 ui0 h pt0 p q f K | sch0 ui0 h pt0 p q f K Kp].
    + apply Hsame. left. reflexivity.
    + destruct (host_eq_dec_nil h) as [->|Hne]; [apply Hsame; left; reflexivity|]. clear Hsame.
      assert (hi_of_host h <> HI_None) as Hhi by (destruct h as [[|c d]|a|ps]; [contradiction Hne; reflexivity | discriminate ..]).
      assert (has_host (auth_url sch0 ui0 h pt0 p q f) = true) as Hh
        by (unfold has_host; cbn [auth_url hosti]; destruct (hi_of_host h); [contradiction Hhi; reflexivity | reflexivity ..]).
      rewrite Hh in K2. cbn [andb] in K2. unfold path_leads_ss in K2. cbn [auth_url path_start ser] in K2.
      unfold auth_ser, auth_pre in K2. rewrite <- app_assoc in K2. rewrite nskipn_app_len in K2.
      rewrite auth_url_hn. rewrite (set_host_none_frame dbg hp hpo hd) by (assumption || exact (ak_st _ _ _ _ _ _ _ _ _ _ _ _ K)).
      destruct p as [[segs last]|].
      * cbn [pth_text] in *. apply starts_with_app_false in K2.
        assert (w0 (path_text segs last ++ qf_text q f) = path_text segs last ++ qf_text q f) as Ew by reflexivity.
        rewrite Ew. cbn [app path_text C02_AuthWf.head_is]. rewrite N.eqb_refl. cbn [negb]. rewrite andb_false_r.
        intros E. inversion E; subst u' s. rewrite (hn_result_path sch0 segs last q f K2).
        apply Canon_noauth. exact (auth_to_noauth sch0 ui0 h pt0 segs last q f K K2).
      * cbn [pth_text app] in *. destruct (qf_text q f) as [|c r] eqn:Eqf.
        -- assert (q = None /\ f = None) as [-> ->].
           { destruct q; [discriminate Eqf|]. destruct f; [discriminate Eqf|]. split; reflexivity. }
           cbn [w0 C02_AuthWf.head_is]. rewrite N.eqb_refl. cbn [negb]. rewrite andb_false_r.
           intros E. inversion E; subst u' s. rewrite hn_result_empty. apply Canon_noauth. exact (auth_to_noauth_empty sch0 ui0 h pt0 K).
        -- assert (qf_text q f <> []) as Hne' by (rewrite Eqf; discriminate).
           assert (C02_AuthWf.head_is (w0 (c :: r)) 47 = false) as -> by (cbn [w0]; rewrite <- Eqf; exact (qf_text_head q f Hne')).
           cbn [negb]. rewrite andb_true_r. destruct dbg; [discriminate|].
           intros E. inversion E; subst u' s. rewrite (hn_result_opaque sch0 q f Hne'). apply Canon_opaque.
           exact (auth_to_opaque sch0 ui0 h pt0 q f K).
    + apply Hsame. right. reflexivity.
Qed.
End NoneCanon.
