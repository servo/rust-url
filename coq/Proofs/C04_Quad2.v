(* Proofs/C04_Quad2.v - finding F-C04-9 on the REPAIRED family.
   The family mime_distinct of Proofs/C04_CostMime.v writes the counter of its n parameter names ";p<k>=1" with at most
   10 decimal digits, so beyond n = 10^10 the names repeat and C04_9_quadratic_statement (ALL n) is not what the finding
   says.  mime_distinct2 writes the counter k with as many digits as it needs (digits_rev with fuel k + 1); it is the
   family the finding describes: "a/b" followed by ";p0=1;p1=1;...;p<n-1>=1".
     mime_distinct2_family : mime_distinct2 n is the member of every bounded-counter family that has enough digits for n
     mime_distinct2_old    : it agrees with mime_distinct for every n <= 10^10
     f_c04_9_all_n2        : for EVERY n, n (n - 1) <= 2 * cost
     mime_distinct2_len    : |mime_distinct2 n| <= (F + 4) n + 3 whenever n <= 10^F (F >= 1): n log n
     f_c04_9_no_linear     : hence NO linear bound a * |input| + b holds for MIME parsing in the cost model. *)
From RU Require Import Base.Prelude Base.Utf8 Base.Utf8Facts Model.AsciiSet Gen.Tables Model.HostT Model.UrlRecord
  Proofs.ListN.
From RU Require Import Model.Mime Proofs.C19_Tables Proofs.C19_Pure Proofs.C04_CostMime Proofs.C04_Quad.

(* ---------------------------------------------------------------- the counter does not depend on spare fuel *)
Lemma digits_rev_fuel f : forall g k, k < 10 ^ N.of_nat (S f) -> k < 10 ^ N.of_nat (S g) ->
  digits_rev (S f) k = digits_rev (S g) k.
Proof.
  induction f as [|f IH]; intros g k Hf Hg.
  - change (10 ^ N.of_nat 1) with 10 in Hf. cbn [digits_rev].
    assert (E : k / 10 = 0) by (apply N.div_small; exact Hf). rewrite E. reflexivity.
  - destruct g as [|g].
    + change (10 ^ N.of_nat 1) with 10 in Hg. cbn [digits_rev].
      assert (E : k / 10 = 0) by (apply N.div_small; exact Hg). rewrite E. reflexivity.
    + cbn [digits_rev]. destruct (k / 10 =? 0); [reflexivity|]. f_equal.
      apply IH.
      * rewrite Nat2N.inj_succ, N.pow_succ_r' in Hf. apply N.div_lt_upper_bound; [lia|]. exact Hf.
      * rewrite Nat2N.inj_succ, N.pow_succ_r' in Hg. apply N.div_lt_upper_bound; [lia|]. exact Hg.
Qed.

Lemma pow10_gt n : N.of_nat n < 10 ^ N.of_nat (S n).
Proof.
  pose proof (pow10_ge n) as H. rewrite Nat2N.inj_succ, N.pow_succ_r'.
  assert (0 < 10 ^ N.of_nat n) by (apply N.neq_0_lt_0; apply N.pow_nonzero; discriminate). lia.
Qed.

(* ---------------------------------------------------------------- the repaired family *)
Fixpoint distinct_params2 (n : nat) : list N :=
  match n with
  | O => []
  | S k => distinct_params2 k ++ [59; 112] ++ rev (digits_rev (S k) (N.of_nat k)) ++ [61; 49]
  end.
Definition mime_distinct2 (n : nat) : list N := [97; 47; 98] ++ distinct_params2 n.

Lemma distinct_params2_family F n : N.of_nat n <= 10 ^ N.of_nat (S F) -> distinct_params2 n = dparams (S F) n.
Proof.
  induction n as [|n IH]; intros Hn; [reflexivity|]. cbn [distinct_params2 dparams].
  rewrite Nat2N.inj_succ in Hn. rewrite IH by lia. unfold dec.
  rewrite (digits_rev_fuel n F (N.of_nat n) (pow10_gt n) ltac:(lia)). reflexivity.
Qed.

Theorem mime_distinct2_family F n : N.of_nat n <= 10 ^ N.of_nat (S F) -> mime_distinct2 n = mime_distinct_f (S F) n.
Proof. intros H. unfold mime_distinct2, mime_distinct_f. rewrite (distinct_params2_family F n H). reflexivity. Qed.

Theorem mime_distinct2_old n : N.of_nat n <= 10000000000 -> mime_distinct2 n = mime_distinct n.
Proof.
  intros H. rewrite (mime_distinct2_family 9 n) by exact H. unfold mime_distinct_f, mime_distinct.
  f_equal; try (symmetry; exact (dparams_10 n)).
Qed.

(* F-C04-9, every n *)
Theorem f_c04_9_all_n2 n : N.of_nat n * (N.of_nat n - 1) <= 2 * mime_parse_cost (mime_distinct2 n).
Proof.
  rewrite (mime_distinct2_family n n) by (pose proof (pow10_gt n); lia).
  apply f_c04_9_family. pose proof (pow10_gt n). lia.
Qed.

(* the input is short: F + 4 bytes per parameter when the counters have at most F digits *)
Lemma dparams_len F n : nlen (dparams F n) <= (N.of_nat F + 4) * N.of_nat n.
Proof.
  induction n as [|n IH]; [cbn; lia|]. cbn [dparams]. rewrite !nlen_app.
  change (nlen [59; 112]) with 2. change (nlen [61; 49]) with 2.
  assert (nlen (dec F n) <= N.of_nat F).
  { unfold dec, nlen. rewrite rev_length. pose proof (digits_rev_len F (N.of_nat n)). lia. }
  rewrite Nat2N.inj_succ. lia.
Qed.

Theorem mime_distinct2_len F n : N.of_nat n <= 10 ^ N.of_nat (S F) ->
  nlen (mime_distinct2 n) <= (N.of_nat (S F) + 4) * N.of_nat n + 3.
Proof.
  intros H. rewrite (mime_distinct2_family F n H). unfold mime_distinct_f. rewrite nlen_app.
  change (nlen [97; 47; 98]) with 3. pose proof (dparams_len (S F) n). lia.
Qed.

Lemma mime_distinct2_usv n : usv_list (mime_distinct2 n).
Proof. rewrite (mime_distinct2_family n n) by (pose proof (pow10_gt n); lia). apply mime_distinct_f_usv. Qed.

(* ---------------------------------------------------------------- no linear bound *)
Lemma pow10_sq m : N.of_nat m * N.of_nat m <= 10 ^ N.of_nat m.
Proof.
  induction m as [|m IH]; [cbn; lia|]. rewrite Nat2N.inj_succ, N.pow_succ_r'.
  destruct m as [|m]; [cbn; lia|]. rewrite Nat2N.inj_succ in *. nia.
Qed.

(* with S = 2a + 2b + 9: an input of length L <= (S + 4) P + 3 that costs C >= P (P - 1) / 2, at P >= S^2 parameters *)
Lemma no_linear_arith a b P L C :
  (2 * a + 2 * b + 9) * (2 * a + 2 * b + 9) <= P -> P * (P - 1) <= 2 * C -> L <= (2 * a + 2 * b + 9 + 4) * P + 3 ->
  a * L + b < C.
Proof.
  intros HS HL HU.
  set (Q := 2 * a * (2 * a + 2 * b + 13)). set (J := 6 * a + 2 * b + 2).
  assert (H2 : 2 * (a * L + b) + 2 <= Q * P + J).
  { apply (N.mul_le_mono_l _ _ a) in HU. unfold Q, J. lia. }
  assert (H3 : Q + J + 1 <= P) by (unfold Q, J; lia).
  assert (H4 : (Q + J) * P <= (P - 1) * P) by (apply N.mul_le_mono_r; lia).
  assert (HJ : J * 1 <= J * P) by (apply N.mul_le_mono_l; lia).
  lia.
Qed.

Theorem f_c04_9_no_linear : forall a b : N, exists s, usv_list s /\ a * nlen s + b < mime_parse_cost s.
Proof.
  intros a b.
  set (m := S (N.to_nat (2 * a + 2 * b + 8))).
  set (n := N.to_nat (10 ^ N.of_nat m)).
  assert (Hn : N.of_nat n = 10 ^ N.of_nat m) by (unfold n; apply N2Nat.id).
  assert (Hm : N.of_nat m = 2 * a + 2 * b + 9) by (unfold m; rewrite Nat2N.inj_succ, N2Nat.id; lia).
  exists (mime_distinct2 n). split; [apply mime_distinct2_usv|].
  pose proof (f_c04_9_all_n2 n) as HL.
  assert (HU : nlen (mime_distinct2 n) <= (N.of_nat m + 4) * N.of_nat n + 3).
  { unfold m at 1. apply mime_distinct2_len. fold m. rewrite Hn. lia. }
  pose proof (pow10_sq m) as HS. rewrite <- Hn in HS. rewrite Hm in HS, HU.
  exact (no_linear_arith a b (N.of_nat n) _ _ HS HL HU).
Qed.
