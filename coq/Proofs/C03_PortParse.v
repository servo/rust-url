(* Proofs/C03_PortParse.v - reach03n: the histories of reach03a that start at Url::parse (no base) of a text with a
   scheme other than "file", or at a file-path constructor, and continue by mutator calls outside known03 (no joins).
   "A scheme-default port is never stored" on these records needs no hypothesis on the parser: Proofs/C03_ReachFin.v. *)
From RU Require Import Base.Prelude Model.HostT Model.UrlRecord Model.Parser Model.FilePath
  Proofs.C02_Reach Proofs.C02_AuthParts Proofs.C02_AuthMain Proofs.C03_Reachability.
Open Scope N_scope.
Open Scope list_scope.

Section Reach.
Variable dbg : bool.
Variable hp hpo : list N -> result host.
Variable hd : host -> list N.

Inductive reach03n : url -> Prop :=
| RN_parse input u : usv_list input -> nonfile_input input = true ->
    parse_url dbg hp hpo hd None None input = POk u -> reach03n u
| RN_file p u : bytes p -> from_file_path p = FOk u -> reach03n u
| RN_dir p u : bytes p -> from_directory_path p = FOk u -> reach03n u
| RN_step u o u' :
    reach03n u -> op_args_ok o -> known03 u o u' = false -> apply_op dbg hp hpo hd u o = Some u' -> reach03n u'.

Lemma reach03n_sub u : reach03n u -> reach03a dbg hp hpo hd u.
Proof.
  induction 1 as [input u Hu Hc Hp | p u Hb H | p u Hb H | u o u' R IH Ha G H].
  - exact (RA_parse dbg hp hpo hd None input u Hp).
  - exact (RA_file dbg hp hpo hd p u Hb H).
  - exact (RA_dir dbg hp hpo hd p u Hb H).
  - exact (RA_step dbg hp hpo hd u o u' IH Ha G H).
Qed.
End Reach.

(* the hypotheses of C02's closed forms are met by the example host functions with the IP-printing display *)
From RU Require Import Proofs.C03_ReachEx.
Lemma ex2_host_RT : HostRT ex_hp ex_hp ex_hd2 /\ host_above ex_hp ex_hp ex_hd2.
Proof.
  destruct ex_host_RT as [(A & B0 & C & D) (E & F)].
  split; [split; [|split; [|split; [reflexivity | exact D]]] | split];
    intros s h Hh; destruct (ex_hp_domain s h Hh) as (d & ->).
  - exact (A s _ Hh).
  - exact (B0 s _ Hh).
  - exact (E s _ Hh).
  - exact (F s _ Hh).
Qed.
