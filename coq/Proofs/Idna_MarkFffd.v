(* Proofs/Idna_MarkFffd.v - C11, the U+FFFD clauses of the mark-errors run:
     error reported  => the returned text contains U+FFFD   (outside Known_C11)
     no error        => the returned text does not contain U+FFFD
   for every adapter, every byte string, every option set and every output policy.
   The returned text is the ASCII prefix followed by the per-label outputs (walk1_top of Proofs/Idna_WalkApi.v).  A label
   that contains U+FFFD is not classified PcUnicode, hence written as it stands - unless its entry is MixedCaseAscii,
   which Known_C11 excludes; a label without U+FFFD is written as itself, as an ASCII input label or as xn-- and ASCII. *)
From RU Require Import Base.Prelude Base.Utf8 Base.U32_c13 Gen.Tables Model.Punycode Model.Uts46
  Proofs.C13_Ascii Proofs.Idna_Sim Proofs.Idna_Api Proofs.Idna_Known Proofs.Idna_Hyp Proofs.Idna_Redisc
  Proofs.Idna_C10_Deny Proofs.Idna_C10_Prefix Proofs.Idna_C10_Inner Proofs.Idna_Mark Proofs.Idna_MarkWalk
  Proofs.Idna_WalkFun Proofs.Idna_WalkInv Proofs.Idna_WalkApi.

(* nf: no U+FFFD in the text *)
Definition nf (l : list N) : Prop := Forall (fun c => c <> FFFD) l.
Lemma ascii_nf l : ascii l -> nf l.
Proof. intros H. eapply Forall_impl; [|exact H]. unfold is_ascii, FFFD, REPLACEMENT. intros; lia. Qed.
Lemma byte_nf l : bytes l -> nf l.
Proof. intros H. eapply Forall_impl; [|exact H]. unfold is_byte, FFFD, REPLACEMENT. intros; lia. Qed.
Lemma lower_ascii_nf m : ascii m -> nf (map to_lower m).
Proof.
  intros H. apply Forall_forall. intros x Hx. apply in_map_iff in Hx. destruct Hx as (c & <- & Hc).
  unfold ascii in H. rewrite Forall_forall in H. specialize (H c Hc). unfold is_ascii in H.
  unfold to_lower, FFFD, REPLACEMENT. destruct (is_upper c); lia.
Qed.
Section Fffd.
Variable cfg : bool.

(* what a walk writes for one label without U+FFFD has none *)
Lemma out_label_nf uni label ip o : fffd label = false -> mixed_ascii ip -> out_label cfg uni label ip = inl o -> nf o.
Proof.
  intros Hl Hip Ho.
  assert (Hln : nf label).
  { apply Forall_forall. intros c Hc E. subst c. unfold fffd in Hl.
    assert (existsb is_fffd label = true) by (apply existsb_exists; exists FFFD; split; [exact Hc|apply N.eqb_refl]). congruence. }
  destruct ip as [m|m|]; cbn [out_label mixed_ascii] in *.
  - inversion Ho. subst o. exact (lower_ascii_nf m Hip).
  - destruct (uni label); inversion Ho; subst o; [exact Hln|exact (lower_ascii_nf m Hip)].
  - destruct (uni label); [inversion Ho; subst o; exact Hln|].
    unfold enc_label in Ho. destruct (encode_internal cfg label) as [q| |s] eqn:E; try discriminate. inversion Ho. subst o.
    change (nf (XN_PREFIX ++ q)). apply Forall_app. split; [unfold XN_PREFIX; repeat constructor; unfold FFFD, REPLACEMENT; lia|].
    unfold encode_internal in E. apply encode_into_ascii in E. exact (ascii_nf q E).
Qed.
Lemma outs_nf uni labels : forall aps os, efffd labels = false -> Forall mixed_ascii aps ->
  outs cfg uni labels aps = inl os -> Forall nf os.
Proof.
  induction labels as [|label labels IH]; intros aps os Hl Ha Ho; [inversion Ho; constructor|].
  destruct aps as [|ip aps]; [inversion Ho; constructor|]. cbn [outs] in Ho.
  cbn [efffd existsb] in Hl. apply orb_false_iff in Hl. destruct Hl as [Hl1 Hl2]. inversion Ha as [|? ? Ha1 Ha2]; subst.
  destruct (out_label cfg uni label ip) as [o|s] eqn:E1; [|discriminate].
  destruct (outs cfg uni labels aps) as [os'|s] eqn:E2; [|discriminate]. inversion Ho.
  constructor; [exact (out_label_nf uni label ip o Hl1 Ha1 E1)|exact (IH aps os' Hl2 Ha2 E2)].
Qed.
Lemma fffd_in l : fffd l = true -> In FFFD l.
Proof.
  intros H. apply existsb_exists in H. destruct H as (x & Hx & Hf). unfold is_fffd in Hf. apply N.eqb_eq in Hf. subst x. exact Hx.
Qed.
Lemma outs_has p tld bd labels aps : pre_ok labels aps -> forall os, efffd labels = true ->
  outs cfg (uni1 false p tld bd) labels aps = inl os -> In FFFD (join_dots os).
Proof.
  induction 1 as [|label ip labels aps Hp _ IH]; intros os He Ho; [discriminate He|]. cbn [outs] in Ho.
  destruct (out_label cfg (uni1 false p tld bd) label ip) as [o|s] eqn:E1; [|discriminate].
  destruct (outs cfg (uni1 false p tld bd) labels aps) as [os'|s] eqn:E2; [|discriminate]. inversion Ho. subst os.
  rewrite join_dots_cons. apply in_or_app. cbn [efffd existsb] in He. destruct (fffd label) eqn:Ef.
  - left. destruct ip as [m|m|]; [discriminate Hp| |]; cbn [out_label] in E1; rewrite (uni1_fffd p tld bd label Ef) in E1;
      inversion E1; subst o; exact (fffd_in label Ef).
  - right. cbn [orb] in He. specialize (IH os' He eq_refl). destruct os' as [|x r]; [destruct IH|right; exact IH].
Qed.
Variable A : adapter.

Theorem ok_no_fffd_full d deny hy p b t : bytes d ->
  to_user_interface A cfg d deny hy p = UI b t false -> ~ In FFFD t.
Proof.
  intros Hd Eu. assert (Hgoal : nf t); [|intros Hin; unfold nf in Hgoal; rewrite Forall_forall in Hgoal; exact (Hgoal FFFD Hin eq_refl)].
  unfold to_user_interface in Eu.
  destruct (process_inner A cfg false hy deny d) as [ptu bd he db ap|s] eqn:Hi; [|unfold process in Eu; rewrite Hi in Eu; discriminate Eu].
  destruct (inner_mark_facts A cfg hy deny d _ _ _ _ _ Hd Hi) as [(-> & -> & _)|HB].
  - unfold process in Eu. rewrite Hi, N.eqb_refl, andb_false_r in Eu. inversion Eu. subst. exact (byte_nf _ Hd).
  - assert (Hne : ptu <> len d) by (destruct HB as [Hlt _]; lia).
    assert (Hhe : he = fffd db) by (destruct HB as (_ & _ & _ & Hx & _); exact Hx).
    rewrite (process_B A cfg false p d deny hy None None false _ _ _ _ _ Hi Hne eq_refl Hhe) in Eu. cbv zeta in Eu.
    destruct (walk1_top cfg false p d _ _ _ _ _ HB ltac:(discriminate)) as (P & rl & Hdd & HP & Hcv & HaP & HW).
    destruct HB as (_ & Hlen & He1 & _ & _ & _ & _ & _ & _ & _ & _ & Hma).
    destruct (walk1 cfg false p d (tld_of db) bd he (split_on DOT db) ap false ptu false false) as [ws we].
    cbn [fst snd run_sink negb] in *.
    destruct we as [|huo|s]; try discriminate Eu; [inversion Eu; subst; exact (byte_nf _ Hd)|].
    destruct he; [discriminate Eu|]. rewrite andb_false_r in Eu. inversion Eu. subst t.
    unfold Post1 in HW. destruct (outs cfg (uni1 false p (tld_of db) bd) (split_on DOT db) ap) as [os|s] eqn:Eo; [|discriminate HW].
    unfold Res1 in HW. cbn [negb andb] in HW.
    destruct (stays (uni1 false p (tld_of db) bd) (split_on DOT db) ap); [destruct HW as [_ HW]; rewrite andb_false_r in HW; discriminate HW|].
    destruct HW as [_ HW]. unfold wcat in HW. cbn [fst tailtext] in HW. rewrite HW.
    apply Forall_app. split; [exact (ascii_nf P HaP)|].
    apply join_dots_Forall; [unfold DOT, FFFD, REPLACEMENT; lia|]. exact (outs_nf _ _ _ _ (eq_sym He1) Hma Eo).
Qed.

Theorem err_fffd_full d deny hy p : bytes d -> Known_C11 A cfg d deny hy = false ->
  ui_err (to_user_interface A cfg d deny hy p) = true -> In FFFD (ui_text (to_user_interface A cfg d deny hy p)).
Proof.
  intros Hd Hk He. destruct (to_user_interface A cfg d deny hy p) as [b t e|s] eqn:Eu; [|discriminate]. cbn [ui_err ui_text] in *. subst e.
  unfold to_user_interface in Eu.
  destruct (process_inner A cfg false hy deny d) as [ptu bd he db ap|s] eqn:Hi; [|unfold process in Eu; rewrite Hi in Eu; discriminate Eu].
  destruct (inner_mark_facts A cfg hy deny d _ _ _ _ _ Hd Hi) as [(-> & -> & _)|HB].
  - unfold process in Eu. rewrite Hi, N.eqb_refl, andb_false_r in Eu. discriminate Eu.
  - assert (Hne : ptu <> len d) by (destruct HB as [Hlt _]; lia).
    assert (Hhe : he = fffd db) by (destruct HB as (_ & _ & _ & Hx & _); exact Hx).
    rewrite (process_B A cfg false p d deny hy None None false _ _ _ _ _ Hi Hne eq_refl Hhe) in Eu. cbv zeta in Eu.
    destruct (walk1_top cfg false p d _ _ _ _ _ HB ltac:(discriminate)) as (P & rl & Hdd & HP & Hcv & HaP & HW).
    destruct HB as (_ & Hlen & He1 & _ & Hpb & _).
    assert (Hpo : pre_ok (split_on DOT db) ap).
    { unfold Known_C11 in Hk. rewrite Hi in Hk. destruct bd; [exact (known_c11_pre_ok _ ap Hlen Hk)|exact (Hpb eq_refl)]. }
    destruct (walk1 cfg false p d (tld_of db) bd he (split_on DOT db) ap false ptu false false) as [ws we].
    cbn [fst snd run_sink negb] in *.
    destruct we as [|huo|s]; try discriminate Eu.
    destruct he; [|rewrite andb_false_r in Eu; discriminate Eu]. inversion Eu. subst t.
    unfold Post1 in HW. destruct (outs cfg (uni1 false p (tld_of db) bd) (split_on DOT db) ap) as [os|s] eqn:Eo; [|discriminate HW].
    unfold Res1 in HW. cbn [negb andb] in HW.
    destruct (stays (uni1 false p (tld_of db) bd) (split_on DOT db) ap).
    + destruct HW as [_ HW]. destruct (cfg && true); [destruct HW as (s & HW & _)|]; discriminate HW.
    + destruct HW as [_ HW]. unfold wcat in HW. cbn [fst tailtext] in HW. rewrite HW. apply in_or_app. right.
      exact (outs_has p _ bd _ _ Hpo os (eq_sym He1) Eo).
Qed.
End Fffd.

Lemma c11_err_fffd_full : forall A cfg, C11_err_fffd_statement A cfg.
Proof. intros A cfg d deny hy p Hb _ Hk He. exact (err_fffd_full cfg A d deny hy p Hb Hk He). Qed.
Lemma c11_ok_no_fffd_full : forall A cfg, C11_ok_no_fffd_statement A cfg.
Proof. intros A cfg d deny hy p b t Hb _ Hu. exact (ok_no_fffd_full cfg A d deny hy p b t Hb Hu). Qed.
