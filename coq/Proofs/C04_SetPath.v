(* Proofs/C04_SetPath.v - Url::set_path and path_segments_mut sessions reach no panic site on a
   well-formed record (wf_b), both configurations:
   - set_path dbg u p = Some _ for EVERY argument (no scalar-value hypothesis);
   - a path_segments_mut session (any list of clear / pop_if_empty / pop / push / extend, then drop) panics
     exactly when debug assertions are on, the URL is not cannot-be-a-base, its scheme is special and the byte at
     path_start is not '/' (psm_assert_fails: PathSegmentsMut::new's debug_assert; a record the parser never
     produces - special URLs always have a path - but wf_b allows it). *)
From RU Require Import Base.Prelude Base.Utf8 Model.AsciiSet Gen.Tables Model.PercentEncoding
  Model.HostT Model.UrlRecord Model.Parser Model.WF Model.Setters
  Proofs.ListN Proofs.C06_List Proofs.C02_Parts Proofs.C03_WF Proofs.C06_WFI Proofs.C06_Tail Proofs.C06_Steps
  Proofs.C06_Suffix Proofs.C06_Path
  Proofs.C04_PathTotal Proofs.C04_ParseTotal Proofs.C04_PathFile Proofs.C04_ParseFile Proofs.C04_PathCtx.

(* ---------- Url::set_path ---------- *)
Lemma tail_ge_path_end u : wf_b u = true ->
  (match query_start u with Some i => path_end u <= i | None => True end)
  /\ (match fragment_start u with Some i => path_end u <= i | None => True end).
Proof.
  intros W. pose proof (qf_qf (wf_qf_facts u W)) as Q3. unfold path_end.
  destruct (query_start u), (fragment_start u); split; try exact I; lia.
Qed.

Lemma restore_after_path_total dbg u v s a : wf_b u = true ->
  query_start v = query_start u -> fragment_start v = fragment_start u ->
  exists u', restore_after_path dbg (set_ser v s) (path_end u) a = Some u'.
Proof.
  intros W Eq Ef. destruct (tail_ge_path_end u W) as [Gq Gf].
  unfold restore_after_path. cbn [ser set_ser query_start fragment_start]. rewrite Eq, Ef.
  rewrite !adjust_opt_ok by assumption. cbn [bindo]. eexists. reflexivity.
Qed.

Theorem set_path_total dbg u p : wf_b u = true -> exists u', set_path dbg u p = Some u'.
Proof.
  intros W. unfold set_path. rewrite (take_after_path_eval u W). cbn [bindo].
  destruct (wf_ps_le_path_end u W) as [B5 B6]. pose proof (wf_se_lt_ps u W) as B0.
  assert (nlen (nfirstn (path_end u) (ser u)) = path_end u) as Lpe by (apply nlen_nfirstn; exact B6).
  unfold cannot_be_a_base, u_slice_from. cbn [ser set_ser scheme_end].
  rewrite slice_from_o_some by (rewrite Lpe; lia). cbn [bindo].
  unfold u_scheme_type, scheme, u_slice_to. cbn [ser set_ser scheme_end].
  rewrite slice_to_o_some by (rewrite Lpe; lia). cbn [bindo]. cbn [path_start set_ser].
  rewrite Lpe.
  destruct (negb (starts_with [47] (nskipn (scheme_end u + 1) (nfirstn (path_end u) (ser u))))).
  - destruct (inp_split_prefix_char 47 (input_new_no_trim p)) as [r|];
      cbn [bindo]; apply (restore_after_path_total dbg u u _ _ W); reflexivity.
  - destruct (parse_path_start_res dbg CSetter (scheme_type_of (nfirstn (scheme_end u) (nfirstn (path_end u) (ser u))))
                eq_refl true (truncate (nfirstn (path_end u) (ser u)) (path_start u)) p) as (s & hh & rem & E & _).
    rewrite E. cbn [unpres bindo]. apply (restore_after_path_total dbg u u _ _ W); reflexivity.
Qed.

(* ---------- path_segments_mut ---------- *)
(* PathSegmentsMut::new asserts (debug builds) that the path of a special URL starts with '/' *)
Definition special_path_ok (u : url) : bool :=
  negb (st_is_special (scheme_type_of (b_scheme u))) || byte_eqb (ser u) (path_start u) 47.
Definition psm_assert_fails (u : url) : bool :=
  byte_eqb (ser u) (scheme_end u + 1) 47 && negb (special_path_ok u).

(* what an editing session keeps: the text in front of the path and, unless the path is empty, its '/' *)
Definition path_text_ok (u : url) (s : list N) : Prop :=
  agree_pre (path_start u) (ser u) s /\ path_start u <= nlen s
  /\ (nlen s = path_start u \/ nnth s (path_start u) = Some 47).

Definition psm_ok (u : url) (p : psm) : Prop :=
  path_start (psm_url p) = path_start u /\ scheme_end (psm_url p) = scheme_end u
  /\ query_start (psm_url p) = query_start u /\ fragment_start (psm_url p) = fragment_start u
  /\ after_first_slash p = path_start u + 1 /\ psm_old_pos p = path_end u
  /\ path_text_ok u (ser (psm_url p)).

Lemma psm_with_ok u p s : psm_ok u p -> path_text_ok u s -> psm_ok u (psm_with p s).
Proof. intros (H1 & H2 & H3 & H4 & H5 & H6 & _) Hs. unfold psm_ok, psm_with. cbn. tauto. Qed.

(* truncation behind the first '/' *)
Lemma path_text_trunc u s n : path_text_ok u s -> path_start u + 1 <= n -> path_text_ok u (nfirstn n s).
Proof.
  intros (H1 & H2 & H3) Hn. unfold path_text_ok. split; [|split].
  - unfold agree_pre in *. rewrite nfirstn_nfirstn by lia. exact H1.
  - rewrite nlen_nfirstn_min. lia.
  - destruct H3 as [H3|H3].
    + left. rewrite nfirstn_all by lia. exact H3.
    + right. rewrite nnth_nfirstn by lia. exact H3.
Qed.

Lemma fixup_keeps st ps s1 s2 : agree_pre (ps + 1) s1 s2 -> ps + 1 <= nlen s1 -> nnth s1 ps = Some 47 ->
  agree_pre ps s1 (file_path_fixup st ps s2) /\ ps + 1 <= nlen (file_path_fixup st ps s2)
  /\ nnth (file_path_fixup st ps s2) ps = Some 47.
Proof.
  intros Ha L1 H47. pose proof (pre_len _ _ _ Ha L1) as L2.
  destruct (st_is_file st) eqn:Ef.
  - split; [|split].
    + unfold file_path_fixup. rewrite Ef. unfold agree_pre.
      rewrite nfirstn_app_le by (rewrite nlen_nfirstn by lia; lia).
      rewrite nfirstn_nfirstn by lia. apply (pre_firstn _ _ _ _ Ha). lia.
    + unfold file_path_fixup. rewrite Ef. rewrite !nlen_app, nlen_nfirstn by lia. change (nlen [47]) with 1. lia.
    + apply fixup_slash; [exact Ef | lia].
  - unfold file_path_fixup. rewrite Ef. split; [|split].
    + eapply agree_pre_le; [exact Ha | lia].
    + exact L2.
    + rewrite (pre_nnth _ _ _ ps Ha) by lia. exact H47.
Qed.

Section Session.
Variable dbg : bool.

Lemma extend_loop_ok u st segs : forall s, path_text_ok u s ->
  exists s', psm_extend_loop dbg st (path_start u) s segs = Some s' /\ path_text_ok u s'.
Proof.
  induction segs as [|seg rest IH]; intros s Hs; [exists s; split; [reflexivity | exact Hs]|].
  cbn [psm_extend_loop]. destruct (psm_skips seg); [apply IH; exact Hs|].
  set (ps := path_start u) in *.
  set (s1 := if (ps + 1 <? nlen s) || (nlen s =? ps) then s ++ [47] else s).
  destruct Hs as (H1 & H2 & H3).
  assert (agree_pre ps s s1 /\ ps + 1 <= nlen s1 /\ nnth s1 ps = Some 47 /\ seg_inv ps (ps + 1) s1 (nlen s1)) as (A1 & A2 & A3 & A4).
  { subst s1. destruct ((ps + 1 <? nlen s) || (nlen s =? ps)) eqn:Ec.
    - split; [apply agree_pre_app_le; exact H2|]. split; [rewrite nlen_app; change (nlen [47]) with 1; lia|].
      split; [|apply seg_inv_snoc; lia].
      destruct H3 as [H3|H3].
      + rewrite nnth_app_ge by lia. rewrite H3, N.sub_diag. reflexivity.
      + rewrite nnth_app_lt by (apply nnth_lt in H3; exact H3). exact H3.
    - assert (nlen s = ps + 1) as L by lia. destruct H3 as [H3|H3]; [lia|].
      split; [reflexivity|]. split; [lia|]. split; [exact H3|].
      unfold seg_inv. rewrite L. replace (ps + 1 - 1) with ps by lia. repeat split; try lia. exact H3. }
  destruct (parse_path_ctx dbg CPathSegmentSetter st ps (ps + 1) ltac:(lia) true s1 seg A4) as (s2 & hh' & rem & E & Ha & _).
  rewrite E. cbn [unpres bindo]. apply IH.
  destruct (fixup_keeps st ps s1 s2 Ha A2 A3) as (F1 & F2 & F3).
  unfold path_text_ok. fold ps. split; [|split; [lia | right; exact F3]].
  eapply agree_pre_trans; [exact H1|]. eapply agree_pre_trans; [exact A1 | exact F1].
Qed.

Lemma psm_apply_ok u p o : wf_b u = true -> psm_ok u p ->
  exists p', psm_apply dbg p o = Some p' /\ psm_ok u p'.
Proof.
  intros W Hp. pose proof Hp as (P1 & P2 & P3 & P4 & P5 & P6 & Hs). pose proof Hs as (H1 & H2 & H3).
  pose proof (wf_se_lt_ps u W) as B0.
  assert (forall segs, exists p', psm_extend dbg p segs = Some p' /\ psm_ok u p') as Hext.
  { intros segs. unfold psm_extend, u_scheme_type, scheme, u_slice_to. rewrite P2.
    rewrite slice_to_o_some by lia. cbn [bindo]. rewrite P1.
    destruct (extend_loop_ok u (scheme_type_of (nfirstn (scheme_end u) (ser (psm_url p)))) segs _ Hs) as (s' & E & Hs').
    rewrite E. cbn [bindo]. eexists. split; [reflexivity|]. apply psm_with_ok; assumption. }
  destruct o as [| | |sg|sgs]; cbn [psm_apply].
  - eexists. split; [reflexivity|]. unfold psm_clear. apply psm_with_ok; [exact Hp|].
    rewrite P5. apply path_text_trunc; [exact Hs | lia].
  - eexists. split; [reflexivity|]. unfold psm_pop_if_empty. rewrite P5.
    destruct (nlen (ser (psm_url p)) <=? path_start u + 1) eqn:E1; [exact Hp|].
    destruct (ends_with_byte 47 (nskipn (path_start u + 1) (ser (psm_url p)))); [|exact Hp].
    apply psm_with_ok; [exact Hp|]. apply path_text_trunc; [exact Hs | lia].
  - eexists. split; [reflexivity|]. unfold psm_pop. rewrite P5.
    destruct (nlen (ser (psm_url p)) <=? path_start u + 1) eqn:E1; [exact Hp|].
    apply psm_with_ok; [exact Hp|]. apply path_text_trunc; [exact Hs | lia].
  - apply Hext.
  - apply Hext.
Qed.

Lemma psm_run_ok u ops : wf_b u = true -> forall p, psm_ok u p ->
  exists p', psm_run dbg p ops = Some p' /\ psm_ok u p'.
Proof.
  intros W. induction ops as [|o r IH]; intros p Hp; [exists p; split; [reflexivity | exact Hp]|].
  cbn [psm_run]. destruct (psm_apply_ok u p o W Hp) as (p1 & E & Hp1). rewrite E. cbn [bindo]. apply IH. exact Hp1.
Qed.

(* a special URL that is not cannot-be-a-base and whose byte at path_start is '/' has that byte inside the path *)
Lemma slash_in_path u : wf_b u = true -> byte_eqb (ser u) (path_start u) 47 = true -> path_start u < path_end u.
Proof.
  intros W H. destruct (wf_ps_le_path_end u W) as [B5 B6]. pose proof (byte_eqb_lt _ _ _ H) as L.
  pose proof (wf_qf_facts u W) as QF. pose proof (qf_q QF) as Q1. pose proof (qf_f QF) as Q2.
  destruct (N.eq_dec (path_start u) (path_end u)) as [E|E]; [|lia]. exfalso.
  apply byte_eqb_true_iff in H. unfold path_end in E.
  destruct (query_start u) as [q|].
  - destruct Q1 as (_ & Qb & _). apply byte_eqb_true_iff in Qb. rewrite <- E in Qb. congruence.
  - destruct (fragment_start u) as [f|]; [|lia].
    destruct Q2 as (_ & Qb & _). apply byte_eqb_true_iff in Qb. rewrite <- E in Qb. congruence.
Qed.

Theorem session_panics_iff u ops : wf_b u = true ->
  (path_segments_session dbg u ops = None <-> dbg = true /\ psm_assert_fails u = true).
Proof.
  intros W. unfold path_segments_session, path_segments_mut. rewrite (cannot_be_a_base_eval u W). cbn [bindo].
  unfold psm_assert_fails.
  destruct (byte_eqb (ser u) (scheme_end u + 1) 47) eqn:Ecbb; cbn [negb andb].
  2:{ split; [discriminate | intros [_ X]; discriminate]. }
  destruct (wf_ps_le_path_end u W) as [B5 B6]. pose proof (wf_se_lt_ps u W) as B0.
  assert (nlen (nfirstn (path_end u) (ser u)) = path_end u) as Lpe by (apply nlen_nfirstn; exact B6).
  unfold psm_new. rewrite (take_after_path_eval u W). cbn [bindo].
  unfold u_scheme_type, scheme, u_slice_to. cbn [ser set_ser scheme_end path_start].
  rewrite slice_to_o_some by (rewrite Lpe; lia). cbn [bindo].
  rewrite nfirstn_nfirstn by lia. rewrite Lpe.
  unfold special_path_ok, b_scheme.
  set (st := scheme_type_of (nfirstn (scheme_end u) (ser u))).
  set (u1 := set_ser u (nfirstn (path_end u) (ser u))).
  (* the state after a successful open *)
  assert (psm_ok u (mkPsm u1 (path_start u + 1) (nskipn (path_end u) (ser u)) (path_end u))) as Hopen.
  { unfold psm_ok, u1. cbn. repeat split; try reflexivity.
    - apply agree_pre_nfirstn_ge. exact B5.
    - rewrite Lpe. exact B5.
    - rewrite Lpe. destruct (N.eq_dec (path_end u) (path_start u)) as [E|E]; [left; exact E|]. right.
      rewrite nnth_nfirstn by lia. apply base_path_slash; [exact W | apply byte_eqb_true_iff; exact Ecbb | lia]. }
  assert (forall p, psm_ok u p ->
            (p' <- psm_run dbg p ops ;; u' <- psm_close dbg p' ;; Some (u', SOk)) <> None) as Hrest.
  { intros p Hp. destruct (psm_run_ok u ops W p Hp) as (p' & E & Hp'). rewrite E. cbn [bindo].
    destruct Hp' as (_ & _ & P3 & P4 & _ & P6 & _). unfold psm_close. rewrite P6.
    destruct (psm_url p') as [s' a1 a2 a3 a4 a5 a6 a7 a8 a9] eqn:Eu. cbn [query_start fragment_start] in P3, P4.
    destruct (restore_after_path_total dbg u (mkUrl s' a1 a2 a3 a4 a5 a6 a7 a8 a9) s' (psm_after_path p') W P3 P4) as (u' & E').
    unfold set_ser in E'. cbn in E'. rewrite E'. discriminate. }
  (* the debug assertion *)
  assert (path_start u < path_end u -> byte_is u1 (path_start u) 47 = Some true) as Hbyte.
  { intros Hlt. unfold byte_is, byte_at, u1. cbn [ser set_ser]. rewrite nnth_nfirstn by lia.
    rewrite (base_path_slash u W ltac:(apply byte_eqb_true_iff; exact Ecbb) Hlt). reflexivity. }
  destruct dbg.
  - destruct (st_is_special st) eqn:Esp; cbn [negb orb].
    + destruct (byte_eqb (ser u) (path_start u) 47) eqn:E47; cbn [negb].
      * rewrite (Hbyte (slash_in_path u W E47)). cbn [bindo assert_o].
        split; [intros X; exfalso; revert X; apply Hrest; exact Hopen | intros [_ X]; discriminate].
      * split; [intros _; split; reflexivity|]. intros _.
        unfold byte_is, byte_at, u1. cbn [ser set_ser].
        destruct (nnth (nfirstn (path_end u) (ser u)) (path_start u)) as [x|] eqn:En; [|reflexivity].
        cbn [bindo]. pose proof (nnth_lt _ _ _ En) as Lx. rewrite Lpe in Lx. rewrite nnth_nfirstn in En by lia.
        unfold byte_eqb in E47. rewrite En in E47. rewrite E47. reflexivity.
    + split; [|intros [_ X]; discriminate]. intros X. exfalso. revert X.
      destruct (path_end u =? path_start u) eqn:Ee.
      * cbn [bindo]. apply Hrest. exact Hopen.
      * rewrite (Hbyte ltac:(lia)). cbn [bindo assert_o]. apply Hrest. exact Hopen.
  - cbn [bindo]. split; [intros X; exfalso; revert X; apply Hrest; exact Hopen | intros [X _]; discriminate].
Qed.

Corollary session_total u ops : wf_b u = true -> special_path_ok u = true ->
  exists r, path_segments_session dbg u ops = Some r.
Proof.
  intros W Hs. destruct (path_segments_session dbg u ops) as [r|] eqn:E; [exists r; reflexivity|].
  apply (session_panics_iff u ops W) in E. destruct E as [_ E]. unfold psm_assert_fails in E. rewrite Hs in E.
  rewrite andb_false_r in E. discriminate.
Qed.
End Session.

(* the excluded record: "http://h" with an empty path satisfies wf_b; opening an editing session on it fails
   the debug assertion of PathSegmentsMut::new *)
Definition psm_w : url := mkUrl [104;116;116;112;58;47;47;104] 4 7 7 8 HI_Domain None 8 None None.
Lemma psm_witness : wf_b psm_w = true /\ psm_assert_fails psm_w = true
  /\ path_segments_session true psm_w [] = None /\ path_segments_session false psm_w [] = Some (psm_w, SOk).
Proof. vm_compute. repeat split; reflexivity. Qed.

(* finding F-C04-12 (with F-C02-8): set_path never panics on "a:/a/b", but set_path("//") leaves "a://", a record
   outside wf_b, on which Position slicing in component order panics in both configurations *)
Definition w_c04_12 : url := mkUrl [97; 58; 47; 97; 47; 98] 1 2 2 2 HI_None None 2 None None.
Lemma c04_12_witness :
  wf_b w_c04_12 = true
  /\ exists u', set_path true w_c04_12 [47; 47] = Some u' /\ set_path false w_c04_12 [47; 47] = Some u'
     /\ ser u' = [97; 58; 47; 47] /\ wf_b u' = false
     /\ index_range true u' BeforeUsername AfterUsername = None
     /\ index_range false u' BeforeUsername AfterUsername = None.
Proof.
  split; [vm_compute; reflexivity|]. eexists. split; [vm_compute; reflexivity|].
  vm_compute. repeat split; reflexivity.
Qed.
