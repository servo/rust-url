(* Proofs/C06_Front.v - two well-formed records with an authority whose serializations agree up
   to the end of the host: scheme, username, password and host read the same. *)
From RU Require Import Base.Prelude Model.UrlRecord Model.WF Proofs.ListN Proofs.C03_WF Proofs.C06_List
  Proofs.C06_WFI.

Definition same_ids (dbg : bool) (u u' : url) : Prop :=
  scheme u' = scheme u /\ username dbg u' = username dbg u /\ password dbg u' = password dbg u
  /\ host_str u' = host_str u.

Lemma has_host_authority u : wf_b u = true -> has_host u = true -> has_authority_b u = true.
Proof.
  intros W H. destruct (has_authority_b u) eqn:Ha; [reflexivity|].
  pose proof (nf_host (wf_noauth_facts u W Ha)) as E. unfold has_host in H. rewrite E in H. discriminate.
Qed.

Section FrontPre.
Variables (u u' : url) (a : N).
Hypothesis W : wf_b u = true.
Hypothesis W' : wf_b u' = true.
Hypothesis Hpre : agree_pre a (ser u) (ser u').
Hypothesis E1 : scheme_end u' = scheme_end u.
Hypothesis E2 : username_end u' = username_end u.
Hypothesis E3 : host_start u' = host_start u.
Hypothesis E4 : host_end u' = host_end u.
Hypothesis E5 : hosti u' = hosti u.
Hypothesis Ha : has_authority_b u = true.
Hypothesis Ha' : has_authority_b u' = true.
Hypothesis Hhe : host_end u <= a.

Lemma fp_scheme : scheme u' = scheme u.
Proof.
  rewrite (scheme_eval u' W'), (scheme_eval u W). unfold piece. cbn [pidx].
  rewrite E1, !N.sub_0_r, !nskipn_0.
  pose proof (wf_auth_facts u W Ha) as F. pose proof (af_ue F); pose proof (af_hs F); pose proof (af_he F).
  rewrite (pre_firstn a _ _ _ Hpre) by lia. reflexivity.
Qed.

Lemma fp_username dbg : username dbg u' = username dbg u.
Proof.
  rewrite (username_eval dbg u' W'), (username_eval dbg u W). unfold piece. cbn [pidx].
  rewrite Ha, Ha', E1, E2.
  pose proof (wf_auth_facts u W Ha) as F. pose proof (af_hs F); pose proof (af_he F).
  rewrite (pre_piece a _ _ _ _ Hpre) by lia. reflexivity.
Qed.

Lemma fp_has_password : has_password_b u' = has_password_b u.
Proof.
  unfold has_password_b. rewrite Ha, Ha', E2. cbn [andb].
  pose proof (wf_auth_facts u W Ha) as F. pose proof (wf_auth_facts u' W' Ha') as F'.
  pose proof (af_hs F); pose proof (af_he F); pose proof (af_ps F).
  destruct (af_userinfo F) as [[U1 U2]|[(U1 & U2 & U3 & U4)|(U1 & U2 & U3 & U4)]].
  - rewrite U2, andb_false_r.
    destruct (af_userinfo F') as [[V1 V2]|[(V1 & _)|(V1 & _)]]; try (rewrite E2, E3 in V1; contradiction).
    rewrite E2 in V2. rewrite V2. apply andb_false_r.
  - rewrite (pre_byte_eqb a _ _ _ _ Hpre) by lia. rewrite U2.
    pose proof (byte_eqb_lt _ _ _ U2).
    pose proof (af_len F'). pose proof (af_ps F'). pose proof (af_he F'). pose proof (af_hs F').
    replace (username_end u =? nlen (ser u)) with false by lia.
    replace (username_end u =? nlen (ser u')) with false by lia. reflexivity.
  - rewrite (pre_byte_eqb a _ _ _ _ Hpre) by lia. rewrite U2, !andb_false_r. reflexivity.
Qed.

Lemma fp_password dbg : password dbg u' = password dbg u.
Proof.
  rewrite (password_piece dbg u' W'), (password_piece dbg u W). rewrite fp_has_password.
  destruct (has_password_b u) eqn:Hp; [|reflexivity].
  unfold piece. cbn [pidx]. rewrite fp_has_password, Hp. rewrite E2, E3.
  pose proof (wf_auth_facts u W Ha) as F. pose proof (af_hs F); pose proof (af_he F).
  rewrite (pre_piece a _ _ _ _ Hpre) by lia. reflexivity.
Qed.

Lemma fp_host_str : host_str u' = host_str u.
Proof.
  rewrite (host_str_eval u' W'), (host_str_eval u W).
  unfold has_host. rewrite E5. destruct (hosti u) eqn:Eh; try reflexivity;
    unfold piece; cbn [pidx]; rewrite E3, E4;
    rewrite (pre_piece a _ _ _ _ Hpre) by lia; reflexivity.
Qed.

Lemma fp_ids dbg : same_ids dbg u u'.
Proof. split; [apply fp_scheme|]. split; [apply fp_username|]. split; [apply fp_password | apply fp_host_str]. Qed.

End FrontPre.

(* the same per accessor, each with only the premises it needs *)
Lemma scheme_same u u' a : wf_b u = true -> wf_b u' = true -> agree_pre a (ser u) (ser u') ->
  scheme_end u' = scheme_end u -> scheme_end u <= a -> scheme u' = scheme u.
Proof.
  intros W W' P E Hle. rewrite (scheme_eval u' W'), (scheme_eval u W). unfold piece. cbn [pidx].
  rewrite E, !N.sub_0_r, !nskipn_0. rewrite (pre_firstn a _ _ _ P) by lia. reflexivity.
Qed.

Lemma username_same dbg u u' a : wf_b u = true -> wf_b u' = true -> has_authority_b u = true ->
  has_authority_b u' = true -> agree_pre a (ser u) (ser u') -> scheme_end u' = scheme_end u ->
  username_end u' = username_end u -> username_end u <= a -> username dbg u' = username dbg u.
Proof.
  intros W W' Ha Ha' P E1 E2 Hle. rewrite (username_eval dbg u' W'), (username_eval dbg u W).
  unfold piece. cbn [pidx]. rewrite Ha, Ha', E1, E2. rewrite (pre_piece a _ _ _ _ P) by lia. reflexivity.
Qed.

Lemma password_same dbg u u' a : wf_b u = true -> wf_b u' = true -> has_authority_b u = true ->
  has_authority_b u' = true -> agree_pre a (ser u) (ser u') ->
  username_end u' = username_end u -> host_start u' = host_start u -> host_start u <= a ->
  password dbg u' = password dbg u.
Proof.
  intros W W' Ha Ha' P E2 E3 Hle.
  pose proof (wf_auth_facts u W Ha) as F. pose proof (wf_auth_facts u' W' Ha') as F'.
  pose proof (af_hs F); pose proof (af_he F); pose proof (af_ps F); pose proof (af_len F).
  pose proof (af_hs F'); pose proof (af_he F'); pose proof (af_ps F'); pose proof (af_len F').
  assert (has_password_b u' = has_password_b u) as Hp.
  { unfold has_password_b. rewrite Ha, Ha', E2. cbn [andb].
    destruct (af_userinfo F) as [[U1 U2]|[(U1 & U2 & U3 & U4)|(U1 & U2 & U3 & U4)]].
    - rewrite U2, andb_false_r.
      destruct (af_userinfo F') as [[V1 V2]|[(V1 & _)|(V1 & _)]]; try (rewrite E2, E3 in V1; contradiction).
      rewrite E2 in V2. rewrite V2. apply andb_false_r.
    - rewrite (pre_byte_eqb a _ _ _ _ P) by lia. rewrite U2.
      pose proof (byte_eqb_lt _ _ _ U2).
      replace (username_end u =? nlen (ser u)) with false by lia.
      replace (username_end u =? nlen (ser u')) with false by lia. reflexivity.
    - rewrite (pre_byte_eqb a _ _ _ _ P) by lia. rewrite U2, !andb_false_r. reflexivity. }
  rewrite (password_piece dbg u' W'), (password_piece dbg u W). rewrite Hp.
  destruct (has_password_b u) eqn:Hpw; [|reflexivity].
  unfold piece. cbn [pidx]. rewrite Hp, Hpw. rewrite E2, E3.
  rewrite (pre_piece a _ _ _ _ P) by lia. reflexivity.
Qed.
