(* Proofs/C04_Reach3.v - C04's no-panic theorems restated over C02's quantifier Reachable3 (Proofs/C02_Reach3.v): parse and
   join of &str texts against any reached record, every call of the 19 mutators outside C02's known_step2, query_pairs_mut
   sessions.  C03_reachability_full (C03_ReachFull.reach3_inv_all) gives inv03 = wfh /\ AS /\ PN /\ HE for every such
   record, so the hand premises wf_b / wfh / base_ok of the C04 theorems are discharged; HE adds that a record with one of
   the five tuple schemes has a host, so Url::origin never panics on a reached record (the class tuple_no_host_b of
   C04_origin_panic_iff is not reached); Url::check_invariants (Proofs/C04_CheckInv.v) panics on a reached record exactly
   when its structural part passes and the re-parse fails. *)
From RU Require Import Base.Prelude Base.Utf8 Model.HostT Model.UrlRecord Model.Parser Model.Setters Model.WF Model.Origin
  Proofs.ListN Proofs.C03_WF Proofs.C06_Suffix Proofs.C06_Main Proofs.C02_Reach Proofs.C02_Reach3 Proofs.C02_SetHostCanon
  Proofs.C03_ReachParts Proofs.C03_AuthEnd Proofs.C03_ParseFront Proofs.C03_ReachFull Proofs.C05_AuthOfs
  Proofs.C04_ParseTotal Proofs.C04_SetPath Proofs.C04_SetHost Proofs.C04_Rest Proofs.C04_Origin Proofs.C16_Origin
  Proofs.C04_CheckInv Proofs.C03_InvSP Proofs.C03_InvSPReach.
From RU Require Proofs.C16_Colons Proofs.C05_Parser Proofs.C05_Alphabet Properties.C03 Properties.C06.

Section R3.
Variable hp hpo : list N -> result host.
Variable hd : host -> list N.
Hypothesis HW : HostWf hp hpo hd.
Hypothesis HNE : host_nonempty hp hpo.
Hypothesis HIPW : IpWf hd.
Hypothesis HOK : C05_Parser.HostOK hp hpo hd.
Hypothesis HIP : C05_Alphabet.IpOKv hd.

Lemma r3_inv dbg u : Reachable3 dbg hp hpo hd u -> inv03 u.
Proof. intros R. exact (proj1 (reach3_inv_all dbg hp hpo hd HW HNE HIPW HOK HIP u R)). Qed.

(* a reached record with a tuple scheme has a host *)
Lemma he_tuple u : wf_b u = true -> HE u -> tuple_no_host_b u = false.
Proof.
  intros W E. unfold tuple_no_host_b. destruct (scheme u) as [s|] eqn:Es; [|reflexivity].
  destruct (str_mem s five_schemes) eqn:E5; [|reflexivity]. cbn [andb]. apply negb_false_iff.
  assert (st_is_special (scheme_type_of s) = true /\ st_is_file (scheme_type_of s) = false) as [S1 S2].
  { apply str_mem_spec in E5. cbn [five_schemes In] in E5.
    destruct E5 as [<-|[<-|[<-|[<-|[<-|[]]]]]]; split; reflexivity. }
  destruct (proj2 (E s Es S1) S2) as (t & Ht). unfold host_str in Ht. destruct (has_host u); [reflexivity|discriminate].
Qed.

Theorem reach3_premises dbg u : Reachable3 dbg hp hpo hd u ->
  wf_b u = true /\ wfh u /\ tuple_no_host_b u = false.
Proof.
  intros R. destruct (r3_inv dbg u R) as (WH & _ & _ & E). split; [exact (proj1 WH)|]. split; [exact WH|].
  exact (he_tuple u (proj1 WH) E).
Qed.

(* the re-parse of a well-formed text, when it succeeds, is well-formed *)
Lemma reparse_wf dbg u o : reparse dbg hp hpo hd u = POk o -> wf_b o = true.
Proof. intros H. exact (proj1 (proj1 (parse_url_inv03 dbg hp hpo hd None None _ o HW I H))). Qed.

Theorem reach3_no_panic dbg u : Reachable3 dbg hp hpo hd u -> forall dbg',
  (* Url mutators *)
  ((forall f, exists u', set_fragment dbg' u f = Some u')
   /\ (forall q, str_arg_ok q -> exists u', set_query dbg' u q = Some u')
   /\ (forall p, port_arg_ok p -> exists r, set_port dbg' u p = Some r)
   /\ (forall pw, exists r, set_password dbg' u pw = Some r)
   /\ (forall un, exists r, set_username dbg' u un = Some r)
   /\ (forall s, exists r, set_scheme dbg' u s = Some r))
  /\ ((forall p, exists u', set_path dbg' u p = Some u')
      /\ (forall ops, path_segments_session dbg' u ops = None <-> dbg' = true /\ psm_assert_fails u = true)
      /\ (forall h, set_host dbg' hp hpo hd u h = None <-> dbg' = true /\ h = None /\ known_c04_1 u = true)
      /\ (forall h, exists r, set_ip_host dbg' hd u h = Some r)
      /\ (forall h op, exists u', set_host_internal dbg' hd u h op = Some u'))
  (* quirks setters *)
  /\ ((forall v, exists r, q_set_protocol dbg' u v = Some r)
      /\ (forall v, exists r, q_set_username dbg' u v = Some r)
      /\ (forall v, exists r, q_set_password dbg' u v = Some r)
      /\ (forall v, exists r, q_set_host dbg' hp hpo hd u v = Some r)
      /\ (forall v, exists r, q_set_hostname dbg' hp hpo hd u v = Some r)
      /\ (forall v, exists r, q_set_port dbg' u v = Some r)
      /\ (forall v, exists u', q_set_pathname dbg' u v = Some u')
      /\ (forall v, usv_list v -> exists u', q_set_search dbg' u v = Some u')
      /\ (forall v, exists u', q_set_hash dbg' u v = Some u'))
  (* Url::origin: never a panic, the fuel of the model never runs out *)
  /\ (forall c, url_origin dbg' hp hpo hd c u <> OPanic /\ url_origin dbg' hp hpo hd c u <> OFuel)
  (* Url::check_invariants: panics exactly when the structural part passes and the re-parse fails *)
  /\ (check_invariants hd u (reparse dbg' hp hpo hd u) = CPanic
      <-> (has_authority_b u && negb (ip_text_ok hd u) = false /\ forall o, reparse dbg' hp hpo hd u <> POk o))
  /\ (Fixpoint_of_reparse dbg' hp hpo hd u -> ip_text_ok hd u = true ->
      check_invariants hd u (reparse dbg' hp hpo hd u) = COk).
Proof.
  intros R dbg'. destruct (reach3_premises dbg u R) as (W & WH & T).
  split; [exact (Properties.C06.C06_nopanic dbg' u WH)|].
  split.
  { exact (conj (fun p => set_path_total dbg' u p W)
          (conj (fun ops => session_panics_iff dbg' u ops W)
          (conj (fun h => set_host_panics_iff dbg' hp hpo hd u h W)
          (conj (fun h => set_ip_host_total dbg' hp hpo hd u h W)
                (fun h op => set_host_internal_total dbg' hp hpo hd u h op W))))). }
  split; [exact (quirks_setters_total dbg' hp hpo hd u WH)|].
  split.
  { intros c. split.
    - intros H. apply (url_origin_panic_iff dbg' hp hpo hd HW c u W) in H. apply tuple_no_host_spec in H. congruence.
    - exact (C16_Colons.fuel_always_enough dbg' hp hpo hd c u). }
  split.
  { apply (check_invariants_panic_iff hd u _ W (proj2 WH)). intros o Ho. exact (reparse_wf dbg' u o Ho). }
  intros F I3. unfold Fixpoint_of_reparse in F. rewrite F. exact (check_invariants_ok hd u W (proj2 WH) I3).
Qed.
(* the path_segments_mut clause as plain no-panic: PathSegmentsMut::new's debug assertion (psm_assert_fails) cannot fail on a
   reached record, because a special scheme implies that the byte at path_start is '/' (invariant SP: Proofs/C03_InvSP.v,
   C03_InvSPSteps.v, C03_InvSPReach.v) *)
Theorem reach3_sessions_total dbg u : Reachable3 dbg hp hpo hd u ->
  psm_assert_fails u = false /\ forall dbg' ops, exists r, path_segments_session dbg' u ops = Some r.
Proof.
  intros R. destruct (reach3_psm_assert dbg hp hpo hd HW HNE HIPW HOK HIP u R) as [_ F]. split; [exact F|].
  intros dbg' ops.
  destruct (reach3_no_panic dbg u R dbg') as (_ & (_ & Hs & _) & _).
  destruct (path_segments_session dbg' u ops) as [r|] eqn:E; [exists r; reflexivity|].
  exfalso. destruct (proj1 (Hs ops) E) as [_ X]. rewrite F in X. discriminate X.
Qed.
End R3.
