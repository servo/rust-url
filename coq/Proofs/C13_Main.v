(* Proofs/C13_Main.v - those statements of Properties/C13.v that are conjunctions of lemmas of several files:
   safe_main, dec_enc_partial, enc_dec_partial, insertions_main.  The round trips themselves are dec_enc_main
   (C13_DecEnc), dec_enc_small_3855 and dec_enc_small (C13_Small), enc_dec_all and enc_dec_main (C13_EncDec). *)
From RU Require Import Base.Prelude Base.U32_c13 Model.Punycode Spec.Rfc3492
  Proofs.C13_Ascii Proofs.C13_Enc Proofs.C13_Dec Proofs.C13_Known Proofs.C13_Rt Proofs.C13_DecB.

Lemma not_known2 p : ~ Known_C13_2 p -> len p <= U32_MAX.
Proof. unfold Known_C13_2. lia. Qed.

Lemma safe_main : forall cfg,
  (forall s, (encode cfg s = Err \/ encode cfg s = Ok (s_encode s))
             /\ (encode_str cfg s = Err \/ encode_str cfg s = Ok (s_encode s)))
  /\ (forall p, ~ Known_C13_2 p ->
        (forall site, decode cfg p <> Panic site) /\ (forall site, decode_to_string cfg p <> Panic site)
        /\ (forall s, decode cfg p = Ok s -> s_decode p = Some s)
        /\ (forall s, decode_to_string cfg p = Ok s -> s_decode p = Some s)).
Proof.
  intros cfg. split.
  - intros s. split; [apply encode_safe|apply encode_str_safe].
  - intros p Hk. apply not_known2 in Hk. repeat split.
    + intros site. exact (decode_with_no_panic cfg U8External p Hk site).
    + intros site. exact (decode_with_no_panic cfg U8External p Hk site).
    + intros s. exact (decode_refines cfg p s Hk).
    + intros s. exact (decode_refines cfg p s Hk).
Qed.

(* the internal instantiations of the decoder never panic either (used by the UTS #46 model) *)
Lemma internal_decoder_no_panic : forall cfg it p, ~ Known_C13_2 p -> forall site, decode_with cfg it p <> Panic site.
Proof. intros cfg it p Hk. apply decode_with_no_panic. apply not_known2. exact Hk. Qed.

(* encode_internal_eq under the name the UTS #46 proofs use; 1000 is PUNYCODE_ENCODE_MAX_INPUT_LENGTH of idna/src/uts46.rs *)
Lemma internal_main : forall cfg s, usv_list s -> (length s <= 1000)%nat ->
  encode_internal cfg s = encode cfg s /\ encode cfg s = Ok (s_encode s).
Proof. exact encode_internal_eq. Qed.

(* the round trips as Props: proved by dec_enc_main (C13_DecEnc), dec_enc_small (C13_Small), enc_dec_main (C13_EncDec);
   Properties/C13.v states them again under the names C13_*_statement *)
Definition dec_enc_statement : Prop :=
  forall cfg s p, usv_list s -> encode cfg s = Ok p -> ~ Known_C13 s -> decode cfg p = Ok s.
Definition dec_enc_small_statement : Prop :=
  forall cfg s p, usv_list s -> (length s <= 3854)%nat -> encode cfg s = Ok p -> decode cfg p = Ok s.
Definition enc_dec_statement : Prop :=
  forall cfg p s, ~ Known_C13_2 p -> decode cfg p = Ok s -> has_non_ascii s = true ->
    exists q, encode cfg s = Ok q /\ eq_upto_digit_case q p.

(* decode (encode s) is s or None, from refinement alone: Bootstring over unbounded integers is invertible
   (s_round_trip), both u32 functions refine the unbounded ones, hence the u32 round trip can fail
   only by the decoder returning None - never by returning another string.  dec_enc_main (C13_DecEnc) says
   when it is s: for every s outside Known_C13. *)
Lemma dec_enc_partial : forall cfg s p, usv_list s -> encode cfg s = Ok p -> ~ Known_C13_2 p ->
  p = s_encode s /\ s_decode p = Some s /\ (decode cfg p = Ok s \/ decode cfg p = Err).
Proof.
  intros cfg s p Hu He Hk.
  destruct (encode_safe cfg s) as [E|E]; rewrite E in He; [discriminate|]. inversion He. subst p.
  split; [reflexivity|]. split; [exact (s_round_trip s Hu)|].
  destruct (decode cfg (s_encode s)) as [s'| |site] eqn:Hd.
  - left. apply decode_refines in Hd; [|apply not_known2; exact Hk].
    rewrite (s_round_trip s Hu) in Hd. inversion Hd. reflexivity.
  - right. reflexivity.
  - exfalso. exact (decode_with_no_panic cfg U8External (s_encode s) (not_known2 _ Hk) site Hd).
Qed.

Lemma enc_dec_partial : forall cfg p s q, ~ Known_C13_2 p ->
  decode cfg p = Ok s -> encode cfg s = Ok q -> s_decode p = Some s /\ q = s_encode s /\ ascii q.
Proof.
  intros cfg p s q Hk Hd He. split; [exact (decode_refines cfg p s (not_known2 p Hk) Hd)|].
  split; [|exact (encode_ascii cfg s q He)].
  destruct (encode_safe cfg s) as [E|E]; rewrite E in He; [discriminate|]. inversion He. reflexivity.
Qed.

Lemma insertions_main : forall it base ins out i c,
  Rep it base (sort_by_key ins) 0 out -> i <= len out ->
  Rep it base (sort_by_key (shift_ins i ins ++ [(i, c)])) 0 (s_insert_at i c out)
  /\ decode_collect it (sort_by_key ins) base 0 = Ok out.
Proof.
  intros it base ins out i c HR Hi. split; [exact (Rep_push it base ins out i c HR Hi)|exact (collect_Rep it base _ 0 out HR)].
Qed.
