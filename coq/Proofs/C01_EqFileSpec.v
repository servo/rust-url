(* Proofs/C01_EqFileSpec.v - specification side of the C01 equivalence for the file scheme: what the
   file, file slash, file host, path start and path states of Spec/Whatwg.v compute on ANY text after
   "file:" when there is no file base (no base, or a base with another scheme), as a function of that
   text (`sfile`), and the proof that the state machine computes exactly that.  The path state is read
   with BOTH Windows-drive-letter quirks of the Standard (`fin_f`: a sole normalized drive letter is not
   popped by "..", a drive letter that becomes the first segment is normalized to "X:"), the file host
   state with its quirk (a drive letter in host position is not a host: the buffer is kept and the path
   state goes on with it) and the localhost rule. *)
From RU Require Import Base.Prelude Spec.Whatwg Proofs.C01_EqRun Proofs.C01_EqPathSpec Proofs.C01_EqAuthSpec
  Proofs.C01_EqSpSpec.

(* the path state of a file URL on the segment list *)
(* "shorten a url's path" for a file URL *)
Definition shorten_f (P : list (list N)) : list (list N) :=
  match P with
  | [p0] => if is_normalized_windows_drive_letter p0 then P else removelast P
  | _ => removelast P
  end.
(* the buffer as it is appended: a Windows drive letter that becomes the first segment is normalized *)
Definition norm_first (P : list (list N)) (B : list N) : list N :=
  if is_nil P && is_windows_drive_letter B then match B with a :: _ :: r => a :: 58 :: r | _ => B end else B.

Definition fin_f (P : list (list N)) (B : list N) (sep : bool) : list (list N) :=
  if is_double_dot_segment B then (if sep then shorten_f P else shorten_f P ++ [[]])
  else if is_single_dot_segment B then (if sep then P else P ++ [[]])
  else P ++ [norm_first P B].

Fixpoint spath_f (t : list N) (P : list (list N)) (B : list N) : list (list N) * list N :=
  match t with
  | [] => (fin_f P B false, [])
  | c :: r => if is_sl c then spath_f r (fin_f P B true) []
              else if is_qh c then (fin_f P B false, t)
              else spath_f r P (B ++ utf8_percent_encode_cp in_path_set c)
  end.

Lemma spath_f_is_g t P B : spath_f t P B = spath_g is_sl fin_f t P B.
Proof. reflexivity. Qed.

Lemma spath_f_rest_head t : forall P B, match snd (spath_f t P B) with [] => True | c :: _ => is_qh c = true end.
Proof. intros P B. rewrite spath_f_is_g. apply spath_g_rest_head. Qed.

(* the record after the path state: the segment list, then what follows the path *)
Definition file_tail (u : spec_url) (r : list (list N) * list N) : spec_url :=
  tail_url (set_path u (SPList (fst r))) (snd r).
(* path start state on a text that is empty or starts with '/', '\', '?' or '#' *)
Definition fstart (u : spec_url) (X : list N) : spec_url := file_tail u (spath_f (path_text_s X) [] []).

(* the URL the file state works on *)
Definition fu (u : spec_url) : spec_url := set_host (set_scheme u str_file) (Some SEmpty).
(* "If host is "localhost", then set host to the empty string" *)
Definition lh (h : spec_host) : spec_host :=
  match h with SDomain d => if list_eqb d str_localhost then SEmpty else h | _ => h end.

Section SFile.
Variable shp : bool -> list N -> option spec_host.

(* file host state with `buf` already in the buffer, on the text t; None = failure *)
Definition sfile_host_g (u : spec_url) (buf t : list N) : option spec_url :=
  let h := buf ++ as_part t in
  let X := as_rest t in
  if is_windows_drive_letter h then Some (file_tail u (spath_f X [] h))
  else if is_nil h then Some (fstart (set_host u (Some SEmpty)) X)
  else match host_parsing shp false h with
       | None => None
       | Some sh => Some (fstart (set_host u (Some (lh sh))) X)
       end.

(* the text R after "file:" (no file base); u = url on entry of the file state *)
Definition sfile (u : spec_url) (R : list N) : option spec_url :=
  match R with
  | c1 :: R1 =>
      if is_sl c1 then
        match R1 with
        | c2 :: T => if is_sl c2 then sfile_host_g (fu u) [] T else Some (file_tail (fu u) (spath_f R1 [] []))
        | [] => Some (file_tail (fu u) (spath_f [] [] []))
        end
      else Some (file_tail (fu u) (spath_f R [] []))
  | [] => Some (file_tail (fu u) (spath_f [] [] []))
  end.

End SFile.

(* the pieces a class recogniser looks at when the text after "file:" starts with two slashes: T follows them *)
Definition file_host_text (T : list N) : list N := as_part T.
Definition file_path_text (T : list N) : list N := as_rest T.

(* the state machine computes it *)
Section FileRuns.
Variable hp : bool -> list N -> option spec_host.
Variable input : list N.
Variable base : option spec_url.

Notation RunsN := (Runs hp input base).
Notation stepN := (step hp input base None).
Notation outN := (out_is hp input base).

Lemma file_special u : list_eqb (su_scheme u) str_file = true -> is_special u = true.
Proof. intros H. apply list_eqb_spec in H. unfold is_special. rewrite H. reflexivity. Qed.

Lemma path_seg_update_f u P B sep :
  su_path u = SPList P -> list_eqb (su_scheme u) str_file = true ->
  (if is_double_dot_segment B
   then (if negb sep then path_append (shorten_path u) [] else shorten_path u)
   else if is_single_dot_segment B && negb sep then path_append u []
        else if negb (is_single_dot_segment B)
             then path_append u (if list_eqb (su_scheme u) str_file && path_is_empty_list u && is_windows_drive_letter B
                                 then match B with a :: _ :: r => a :: 58 :: r | _ => B end else B)
             else u)
  = set_path u (SPList (fin_f P B sep)).
Proof.
  intros HP Hf. unfold fin_f, shorten_path, path_append, path_is_empty_list, norm_first, shorten_f. rewrite Hf, HP. cbn [andb].
  destruct (is_double_dot_segment B).
  - destruct P as [|p0 [|p1 P']].
    + destruct sep; cbn [negb removelast su_path set_path app]; destruct u; reflexivity.
    + destruct (is_normalized_windows_drive_letter p0).
      * destruct sep; cbn [negb]; rewrite ?HP; destruct u; cbn in *; subst; reflexivity.
      * destruct sep; cbn [negb removelast su_path set_path app]; destruct u; reflexivity.
    + destruct sep; cbn [negb su_path set_path]; destruct u; reflexivity.
  - destruct (is_single_dot_segment B); cbn [andb negb].
    + destruct sep; cbn [negb]; destruct u; cbn in *; subst; reflexivity.
    + destruct P as [|p0 P']; cbn [is_nil andb]; reflexivity.
Qed.

(* path state *)
Theorem runs_path_f : forall t pre B a b pw u P,
  input = pre ++ t -> su_path u = SPList P -> list_eqb (su_scheme u) str_file = true ->
  RunsN (at_pos StPath pre B a b pw u) (BDone (file_tail u (spath_f t P B))).
Proof.
  intros t pre B a b pw u P Hin HP Hf. rewrite spath_f_is_g.
  exact (runs_path_g hp input base true true is_sl fin_f (fun c => eq_refl) path_seg_update_f
           t pre B a b pw u P Hin HP (file_special u Hf) Hf).
Qed.

(* path start state (file URL, no state override) *)
Theorem runs_path_start_f X : forall pre a b pw u,
  input = pre ++ X -> su_path u = SPList [] -> list_eqb (su_scheme u) str_file = true ->
  RunsN (at_pos StPathStart pre [] a b pw u) (BDone (fstart u X)).
Proof.
  intros pre a b pw u Hin HP Hf. apply (runs_path_start_sp hp input base X pre a b pw u _ Hin (file_special u Hf)).
  intros pre' Hin'. exact (runs_path_f _ pre' [] a b pw u [] Hin' HP Hf).
Qed.

(* file host state *)
Lemma fh_end_cond X : starts_aes X = true ->
  (is_eof (hd_error X) || cis (hd_error X) 47 || cis (hd_error X) 92 || cis (hd_error X) 63 || cis (hd_error X) 35) = true.
Proof.
  destruct X as [|c r]; [reflexivity|]. cbn [starts_aes hd_error is_eof cis orb]. unfold is_aes, is_ae. intros H.
  destruct (c =? 47); [reflexivity|]. destruct (c =? 92); [reflexivity|]. cbn [orb] in *. rewrite orb_false_r in H. exact H.
Qed.

Theorem runs_file_host t : forall pre buf a b pw u,
  input = pre ++ t -> su_path u = SPList [] -> list_eqb (su_scheme u) str_file = true ->
  outN (at_pos StFileHost pre buf a b pw u) (sfile_host_g hp u buf t).
Proof.
  (* the buffer ends at '/', '\', '?', '#' or the end of the input *)
  assert (forall X pre buf a b pw u, input = pre ++ X -> starts_aes X = true ->
            su_path u = SPList [] -> list_eqb (su_scheme u) str_file = true ->
            outN (at_pos StFileHost pre buf a b pw u)
                 (if is_windows_drive_letter buf then Some (file_tail u (spath_f X [] buf))
                  else if is_nil buf then Some (fstart (set_host u (Some SEmpty)) X)
                  else match host_parsing hp false buf with
                       | None => None
                       | Some sh => Some (fstart (set_host u (Some (lh sh))) X)
                       end)) as Hend.
  { intros X pre buf a b pw u Hin Hx HP Hf. pose proof (file_special u Hf) as Hsp. pose proof (fh_end_cond X Hx) as Ec.
    destruct (is_windows_drive_letter buf) eqn:Ew.
    - cbn [out_is].
      eapply runs_step_back with (st' := StPath) (buf' := buf) (u' := u); [exact Hin | |].
      + rewrite (step_unfold _ _ _ _ _ _ _ _ _ _ _ Hin). cbn zeta. unfold st_file_host.
        rewrite Ec. cbn [has_ov opt_is_some negb andb m_buf at_pos]. rewrite Ew. reflexivity.
      + exact (runs_path_f X pre buf a b pw u [] Hin HP Hf).
    - destruct (is_nil buf) eqn:Enil.
      + destruct buf as [|x y]; [|discriminate Enil]. cbn [out_is].
        eapply runs_step_back with (st' := StPathStart) (buf' := []) (u' := set_host u (Some SEmpty)); [exact Hin | |].
        * rewrite (step_unfold _ _ _ _ _ _ _ _ _ _ _ Hin). cbn zeta. unfold st_file_host.
          rewrite Ec. cbn [has_ov opt_is_some negb andb m_buf at_pos is_windows_drive_letter list_eqb]. reflexivity.
        * apply runs_path_start_f; [exact Hin | destruct u; exact HP | destruct u; exact Hf].
      + assert (list_eqb buf [] = false) as Enb by (rewrite list_eqb_nil; exact Enil).
        destruct (host_parsing hp false buf) as [sh|] eqn:Ehp.
        * cbn [out_is].
          eapply runs_step_back with (st' := StPathStart) (buf' := []) (u' := set_host u (Some (lh sh))); [exact Hin | |].
          -- rewrite (step_unfold _ _ _ _ _ _ _ _ _ _ _ Hin). cbn zeta. unfold st_file_host.
             rewrite Ec. cbn [has_ov opt_is_some negb andb m_buf m_url at_pos]. rewrite Ew, Enb, Hsp. cbn [negb]. rewrite Ehp.
             unfold lh. reflexivity.
          -- apply runs_path_start_f; [exact Hin | destruct u; exact HP | destruct u; exact Hf].
        * apply (out_fail hp input base _ u). rewrite (step_unfold _ _ _ _ _ _ _ _ _ _ _ Hin). cbn zeta. unfold st_file_host.
          rewrite Ec. cbn [has_ov opt_is_some negb andb m_buf m_url at_pos]. rewrite Ew, Enb, Hsp. cbn [negb]. rewrite Ehp.
          reflexivity. }
  induction t as [|c r IH]; intros pre buf a b pw u Hin HP Hf; unfold sfile_host_g.
  - cbn [as_part as_rest]. cbv zeta. rewrite app_nil_r. exact (Hend [] pre buf a b pw u Hin eq_refl HP Hf).
  - cbn [as_part as_rest]. destruct (is_aes c) eqn:Eae.
    + cbv zeta. rewrite app_nil_r. exact (Hend (c :: r) pre buf a b pw u Hin Eae HP Hf).
    + cbv zeta.
      pose proof (IH (pre ++ [c]) (buf ++ [c]) a b pw u (snoc_split _ _ _ _ Hin) HP Hf) as IH'.
      unfold sfile_host_g in IH'. cbv zeta in IH'. rewrite <- app_assoc in IH'. cbn [app] in IH'.
      eapply out_next with (st' := StFileHost) (buf' := buf ++ [c]) (u' := u); [exact Hin | | exact IH'].
      rewrite (step_unfold _ _ _ _ _ _ _ _ _ _ _ Hin). cbn zeta. cbn [hd_error]. unfold st_file_host.
      cbn [is_eof cis orb]. unfold is_aes, is_ae in Eae.
      assert ((c =? 47) = false) as -> by lia. assert ((c =? 92) = false) as -> by lia.
      assert ((c =? 63) = false) as -> by lia. assert ((c =? 35) = false) as -> by lia. reflexivity.
Qed.

(* file state and file slash state, no file base *)
Lemma fu_path u : su_path u = SPList [] -> su_path (fu u) = SPList [].
Proof. intros H. destruct u; exact H. Qed.
Lemma fu_scheme u : list_eqb (su_scheme (fu u)) str_file = true.
Proof. destruct u; reflexivity. Qed.

Theorem runs_file R : forall pre a b pw u,
  input = pre ++ R -> base_is_file base = None -> su_path u = SPList [] ->
  outN (at_pos StFile pre [] a b pw u) (sfile hp u R).
Proof.
  intros pre a b pw u Hin Hb HP. pose proof (fu_path u HP) as HP'. pose proof (fu_scheme u) as Hf'.
  unfold sfile. destruct R as [|c1 R1].
  - (* EOF *)
    cbn [out_is].
    eapply runs_step_back with (st' := StPath) (buf' := []) (u' := fu u); [exact Hin | |].
    + rewrite (step_unfold _ _ _ _ _ _ _ _ _ _ _ Hin). cbn zeta. cbn [hd_error]. unfold st_file.
      cbn [cis orb]. rewrite Hb. reflexivity.
    + exact (runs_path_f [] pre [] a b pw (fu u) [] Hin HP' Hf').
  - destruct (is_sl c1) eqn:Esl1.
    + (* file slash state *)
      assert (stepN (at_pos StFile pre [] a b pw u) = SCont (mkM StFileSlash (Z.of_nat (length pre)) [] a b pw (fu u))) as E1.
      { rewrite (step_unfold _ _ _ _ _ _ _ _ _ _ _ Hin). cbn zeta. cbn [hd_error]. unfold st_file.
        cbn [cis]. fold (is_sl c1). rewrite Esl1. reflexivity. }
      assert (input = (pre ++ [c1]) ++ R1) as Hin1 by (exact (snoc_split _ _ _ _ Hin)).
      destruct R1 as [|c2 T].
      * cbn [out_is]. eapply runs_step_next; [exact Hin | exact E1 |].
        eapply runs_step_back with (st' := StPath) (buf' := []) (u' := fu u); [exact Hin1 | |].
        -- rewrite (step_unfold _ _ _ _ _ _ _ _ _ _ _ Hin1). cbn zeta. cbn [hd_error]. unfold st_file_slash.
           cbn [cis orb m_url at_pos]. rewrite Hb. reflexivity.
        -- exact (runs_path_f [] (pre ++ [c1]) [] a b pw (fu u) [] Hin1 HP' Hf').
      * destruct (is_sl c2) eqn:Esl2.
        -- (* file host state *)
           eapply out_next; [exact Hin | exact E1 |].
           eapply out_next with (st' := StFileHost) (buf' := []) (u' := fu u); [exact Hin1 | |].
           ++ rewrite (step_unfold _ _ _ _ _ _ _ _ _ _ _ Hin1). cbn zeta. cbn [hd_error]. unfold st_file_slash.
              cbn [cis]. fold (is_sl c2). rewrite Esl2. reflexivity.
           ++ exact (runs_file_host T ((pre ++ [c1]) ++ [c2]) [] a b pw (fu u) (snoc_split _ _ _ _ Hin1) HP' Hf').
        -- cbn [out_is]. eapply runs_step_next; [exact Hin | exact E1 |].
           eapply runs_step_back with (st' := StPath) (buf' := []) (u' := fu u); [exact Hin1 | |].
           ++ rewrite (step_unfold _ _ _ _ _ _ _ _ _ _ _ Hin1). cbn zeta. cbn [hd_error]. unfold st_file_slash.
              cbn [cis]. fold (is_sl c2). rewrite Esl2. cbn [m_url at_pos]. rewrite Hb. reflexivity.
           ++ exact (runs_path_f (c2 :: T) (pre ++ [c1]) [] a b pw (fu u) [] Hin1 HP' Hf').
    + cbn [out_is].
      eapply runs_step_back with (st' := StPath) (buf' := []) (u' := fu u); [exact Hin | |].
      * rewrite (step_unfold _ _ _ _ _ _ _ _ _ _ _ Hin). cbn zeta. cbn [hd_error]. unfold st_file.
        cbn [cis]. fold (is_sl c1). rewrite Esl1. rewrite Hb. reflexivity.
      * exact (runs_path_f (c1 :: R1) pre [] a b pw (fu u) [] Hin HP' Hf').
Qed.

(* the run at the ':' for the scheme "file": file state *)
Theorem runs_scheme_colon_file pre rest res :
  input = pre ++ 58 :: rest ->
  RunsN (at_pos StFile (pre ++ [58]) [] false false false (set_scheme empty_url str_file)) res ->
  RunsN (at_pos StScheme pre str_file false false false empty_url) res.
Proof.
  intros Hin HR.
  eapply runs_step_next with (st' := StFile) (buf' := []); [exact Hin | | exact HR].
  rewrite (step_unfold _ _ _ _ _ _ _ _ _ _ _ Hin). cbn zeta. cbn [hd_error tl]. unfold st_scheme.
  assert (is_scheme_cp 58 = false) as E1 by reflexivity.
  cbn [cpred cis has_ov opt_is_some andb m_url m_buf at_pos]. rewrite E1.
  replace (58 =? 58) with true by reflexivity. reflexivity.
Qed.

End FileRuns.

(* the parser as it is invoked *)
(* "file:" R, and no base or a base with another scheme: the base is never consulted *)
Definition no_file_base (base : option spec_url) : bool :=
  match base with Some b => negb (list_eqb (su_scheme b) str_file) | None => true end.

Lemma no_file_base_none base : no_file_base base = true -> base_is_file base = None.
Proof.
  unfold no_file_base, base_is_file. destruct base as [b|]; [|reflexivity].
  destruct (list_eqb (su_scheme b) str_file); [discriminate | reflexivity].
Qed.

Definition u_file0 : spec_url := set_scheme empty_url str_file.

Theorem spec_file_any shp base input R :
  spec_scheme (spec_clean input) = Some (str_file, R) -> no_file_base base = true ->
  match sfile shp u_file0 R with
  | Some su => spec_basic_url_parse shp input base = BDone su
  | None => exists uf, spec_basic_url_parse shp input base = BFailure uf
  end.
Proof.
  intros Hs Hb. set (inp := spec_clean input) in *. apply no_file_base_none in Hb.
  destruct (runs_scheme shp inp base str_file R BOutOfFuel Hs) as (pre & Hin & _).
  assert (inp = (pre ++ [58]) ++ R) as Hin1 by (rewrite Hin, <- app_assoc; reflexivity).
  pose proof (runs_file shp inp base R (pre ++ [58]) false false false u_file0 Hin1 Hb eq_refl) as RF.
  assert (forall res, Runs shp inp base (at_pos StFile (pre ++ [58]) [] false false false u_file0) res ->
                      spec_basic_url_parse shp input base = res) as Hrun.
  { intros res HR. apply spec_parse_of_runs. fold inp.
    destruct (runs_scheme shp inp base str_file R res Hs) as (pre2 & Hin' & K). apply K. clear K.
    assert (pre2 = pre) as -> by (rewrite Hin in Hin'; apply app_inv_tail in Hin'; symmetry; exact Hin').
    exact (runs_scheme_colon_file shp inp base pre R res Hin HR). }
  destruct (sfile shp u_file0 R) as [su|]; cbn [out_is] in RF.
  - apply Hrun. exact RF.
  - destruct RF as [uf K]. exists uf. apply Hrun. exact K.
Qed.
