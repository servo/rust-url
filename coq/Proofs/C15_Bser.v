(* Proofs/C15_Bser.v - the urlencoded byte serializer: chunk iterator = per-byte map, alphabet,
   and decode . replace_plus inverts it. *)
From RU Require Import Base.Prelude Base.Utf8 Base.Utf8Facts Base.Outcome_c15 Gen.Tables
  Model.PercentEncoding Model.FormUrlencoded Proofs.C14_Enc Proofs.C15_Table
  Proofs.C15_Parse.

(* table-based per-byte serialization, as the iterator produces it *)
Definition bser1_t (b : N) : list N :=
  if byte_serialized_unchanged b then [b]
  else if b =? T_FORM_SPACE then T_FORM_SPACE_OUT else enc_byte b.
Definition bser_t (bs : list N) : list N := flat_map bser1_t bs.

Lemma bser_t_is_bser bs : bytes bs -> bser_t bs = bser bs.
Proof.
  induction bs as [|b r IH]; intros H; [reflexivity|].
  inversion H as [|? ? Hb Hr]; subst. unfold bser_t, bser. cbn [flat_map].
  unfold bser1_t, bser1. rewrite enc_byte_is_spec by exact Hb. f_equal. apply IH. exact Hr.
Qed.

Lemma bser_t_cons b r : bser_t (b :: r) = bser1_t b ++ bser_t r.
Proof. reflexivity. Qed.

Lemma bser_t_app x y : bser_t (x ++ y) = bser_t x ++ bser_t y.
Proof. unfold bser_t. apply flat_map_app. Qed.

Lemma bser_t_unchanged u : Forall (fun b => negb (byte_serialized_unchanged b) = false) u -> bser_t u = u.
Proof.
  induction u as [|b r IH]; intros H; [reflexivity|].
  inversion H as [|? ? Hb Hr]; subst. rewrite bser_t_cons. unfold bser1_t.
  destruct (byte_serialized_unchanged b); [|discriminate]. cbn [app]. f_equal. apply IH. exact Hr.
Qed.

Lemma position_prefix p l i : position p l = Some i ->
  Forall (fun b => p b = false) (firstn i l) /\ (i < length l)%nat.
Proof.
  revert i. induction l as [|b r IH]; intros i H; cbn [position] in H; [discriminate|].
  destruct (p b) eqn:E.
  - inversion H; subst. cbn [firstn length]. split; [constructor | lia].
  - destruct (position p r) as [j|]; [|discriminate]. inversion H; subst.
    destruct (IH j eq_refl) as [H1 H2]. cbn [firstn length]. split; [constructor; assumption | lia].
Qed.

Lemma enc_byte_nonempty b : b < 256 -> enc_byte b <> [].
Proof. intros Hb. rewrite enc_byte_is_spec by exact Hb. discriminate. Qed.

Lemma bser_next_spec bs c rest : bser_next bs = Some (c, rest) ->
  bser_t bs = c ++ bser_t rest /\ (length rest < length bs)%nat /\ (bytes bs -> c <> [] /\ bytes rest).
Proof.
  destruct bs as [|b r]; cbn [bser_next]; [discriminate|].
  destruct (byte_serialized_unchanged b) eqn:E; cbn [negb].
  - destruct (position (fun b0 => negb (byte_serialized_unchanged b0)) r) as [i|] eqn:Ep.
    + intros H. inversion H; subst. clear H. destruct (position_prefix _ _ _ Ep) as [Hp Hi].
      cbn [plus firstn skipn].
      split; [|split].
      * rewrite <- (firstn_skipn i r) at 1. rewrite bser_t_cons, bser_t_app.
        rewrite (bser_t_unchanged _ Hp). unfold bser1_t. rewrite E. reflexivity.
      * rewrite skipn_length. cbn [length]. lia.
      * intros Hby. split; [discriminate|].
        inversion Hby as [|? ? _ Hr]; subst.
        rewrite <- (firstn_skipn i r) in Hr. apply bytes_app in Hr. tauto.
    + intros H. inversion H; subst. clear H. apply position_none in Ep.
      split; [|split].
      * change (bser_t []) with (@nil N). rewrite app_nil_r.
        rewrite bser_t_cons, (bser_t_unchanged _ Ep). unfold bser1_t. rewrite E. reflexivity.
      * cbn [length]. lia.
      * intros _. split; [discriminate | constructor].
  - intros H. inversion H; subst. clear H.
    split; [|split].
    + rewrite bser_t_cons. unfold bser1_t. rewrite E. reflexivity.
    + cbn [length]. lia.
    + intros Hby. inversion Hby as [|? ? Hb Hr]; subst. split; [|exact Hr].
      destruct (b =? T_FORM_SPACE); [discriminate | apply enc_byte_nonempty; exact Hb].
Qed.

Lemma bser_next_none bs : bser_next bs = None <-> bs = [].
Proof.
  destruct bs as [|b r]; cbn [bser_next]; [tauto|].
  destruct (negb (byte_serialized_unchanged b)); [split; discriminate|].
  destruct (position _ r); split; discriminate.
Qed.

(* with enough fuel the chunk loop terminates normally, and its chunks concatenate to the per-byte map *)
Lemma bser_chunks_f_spec n : forall bs, (length bs < n)%nat ->
  exists cs, bser_chunks_f n bs = Ok cs /\ concat cs = bser_t bs
             /\ (length cs <= length bs)%nat /\ (bs <> [] -> (1 <= length cs)%nat)
             /\ (bytes bs -> Forall (fun c => c <> []) cs).
Proof.
  induction n as [|n IH]; intros bs Hlen; [lia|].
  cbn [bser_chunks_f]. destruct (bser_next bs) as [[c rest]|] eqn:En.
  - destruct (bser_next_spec _ _ _ En) as (H1 & H2 & H3).
    destruct (IH rest ltac:(lia)) as (cs & I1 & I2 & I3 & I4 & I5). rewrite I1. cbn [omap].
    exists (c :: cs). split; [reflexivity|]. cbn [concat length].
    split; [rewrite I2; symmetry; exact H1|]. split; [lia|]. split; [intros _; lia|].
    intros Hby. destruct (H3 Hby) as [Hc Hr]. constructor; [exact Hc | exact (I5 Hr)].
  - apply bser_next_none in En. subst. exists []. cbn. repeat split; try lia; try congruence. constructor.
Qed.

Theorem bser_chunks_ok bs :
  exists cs, bser_chunks bs = Ok cs /\ concat cs = bser_t bs
             /\ (length cs <= length bs)%nat /\ (bs <> [] -> (1 <= length cs)%nat)
             /\ (bytes bs -> Forall (fun c => c <> []) cs).
Proof. unfold bser_chunks. apply bser_chunks_f_spec. lia. Qed.

Lemma extend_chunks_concat cs : forall s, extend_chunks s cs = s ++ concat cs.
Proof.
  unfold extend_chunks. induction cs as [|c r IH]; intros s; cbn [fold_left concat].
  - rewrite app_nil_r. reflexivity.
  - rewrite IH, app_assoc. reflexivity.
Qed.

Theorem bser_size_hint_ok bs cs : bser_chunks bs = Ok cs ->
  let n := N.of_nat (length cs) in
  fst (bser_size_hint bs) <= n /\ match snd (bser_size_hint bs) with Some hi => n <= hi | None => True end.
Proof.
  intros H. destruct (bser_chunks_ok bs) as (cs' & H1 & _ & H3 & H4 & _).
  rewrite H1 in H. inversion H; subst cs'. cbv zeta.
  destruct bs as [|b r].
  - cbn in *. lia.
  - cbn [bser_size_hint fst snd]. specialize (H4 ltac:(discriminate)). lia.
Qed.

(* [A-Za-z0-9*-._+%] : what a serialized name or value consists of *)
Definition val_alpha (c : N) : bool := unchanged_spec c || (c =? 43) || (c =? 37).
(* [A-Za-z0-9*-._+%&=] : the alphabet of the property *)
Definition form_alpha (c : N) : bool := val_alpha c || (c =? 38) || (c =? 61).

Lemma hex_upper_alnum d : d < 16 -> is_alnum (hex_upper d) = true.
Proof. intros H. unfold is_alnum, is_alpha, is_upper, is_lower, is_digit, hex_upper. destruct (d <? 10) eqn:E; lia. Qed.

Lemma bser1_alpha b : b < 256 -> Forall (fun c => val_alpha c = true) (bser1 b).
Proof.
  intros Hb. unfold bser1. destruct (byte_serialized_unchanged b) eqn:E.
  - constructor; [|constructor]. unfold val_alpha. rewrite <- unchanged_is_spec, E. reflexivity.
  - destruct (b =? 32); [repeat constructor|].
    unfold enc_byte_spec. pose proof (hex_upper_alnum (b / 16) ltac:(lia)) as H1.
    pose proof (hex_upper_alnum (b mod 16) ltac:(lia)) as H2.
    repeat constructor; unfold val_alpha, unchanged_spec; rewrite ?H1, ?H2; reflexivity.
Qed.

Theorem bser_alpha bs : bytes bs -> Forall (fun c => val_alpha c = true) (bser bs).
Proof.
  induction bs as [|b r IH]; intros H; [constructor|].
  inversion H as [|? ? Hb Hr]; subst. unfold bser. cbn [flat_map]. apply Forall_app. split.
  - apply bser1_alpha. exact Hb.
  - apply IH. exact Hr.
Qed.

Lemma val_alpha_not_sep c : val_alpha c = true -> c <> 38 /\ c <> 61.
Proof. unfold val_alpha, unchanged_spec, is_alnum, is_alpha, is_upper, is_lower, is_digit. lia. Qed.

Lemma val_alpha_form c : val_alpha c = true -> form_alpha c = true.
Proof. unfold form_alpha. intros ->. reflexivity. Qed.

Lemma form_alpha_ascii c : form_alpha c = true -> c < 128.
Proof. unfold form_alpha, val_alpha, unchanged_spec, is_alnum, is_alpha, is_upper, is_lower, is_digit. lia. Qed.

Lemma bser_no_amp bs : bytes bs -> Forall (fun c => c <> 38) (bser bs).
Proof. intros H. eapply Forall_impl; [|exact (bser_alpha bs H)]. cbv beta. intros c Hc. apply val_alpha_not_sep in Hc. tauto. Qed.
Lemma bser_no_eq bs : bytes bs -> Forall (fun c => c <> 61) (bser bs).
Proof. intros H. eapply Forall_impl; [|exact (bser_alpha bs H)]. cbv beta. intros c Hc. apply val_alpha_not_sep in Hc. tauto. Qed.

Lemma unchanged_plain b : byte_serialized_unchanged b = true -> b <> 37 /\ b <> 43.
Proof.
  rewrite unchanged_is_spec. unfold unchanged_spec, is_alnum, is_alpha, is_upper, is_lower, is_digit. lia.
Qed.

Lemma hex_upper_plain d : d < 16 -> hex_upper d <> 43.
Proof. intros H. unfold hex_upper. destruct (d <? 10); lia. Qed.

Lemma bser_inverse bs : bytes bs -> forall rest,
  decode (map plus_to_space (bser bs ++ rest)) = bs ++ decode (map plus_to_space rest).
Proof.
  induction bs as [|b r IH]; intros H rest; [reflexivity|].
  inversion H as [|? ? Hb Hr]; subst. unfold is_byte in Hb.
  unfold bser. cbn [flat_map]. fold (bser r). rewrite <- app_assoc. unfold bser1.
  destruct (byte_serialized_unchanged b) eqn:E.
  - destruct (unchanged_plain b E) as [H37 H43]. cbn [app map].
    rewrite plus_to_space_eq. replace (b =? 43) with false by lia.
    rewrite decode_other by exact H37. cbn [app]. f_equal. apply IH. exact Hr.
  - destruct (N.eqb_spec b 32) as [->|Hne].
    + cbn [app map]. rewrite plus_to_space_eq. cbn [N.eqb]. change (43 =? 43) with true. cbv iota.
      rewrite decode_other by lia. cbn [app]. f_equal. apply IH. exact Hr.
    + unfold enc_byte_spec. cbn [app map]. rewrite !plus_to_space_eq.
      change (37 =? 43) with false. cbv iota.
      pose proof (hex_upper_plain (b / 16) ltac:(lia)) as H1.
      pose proof (hex_upper_plain (b mod 16) ltac:(lia)) as H2.
      replace (hex_upper (b / 16) =? 43) with false by lia.
      replace (hex_upper (b mod 16) =? 43) with false by lia.
      rewrite decode_pct3, after_percent_hex by exact Hb. cbn [app]. f_equal. apply IH. exact Hr.
Qed.

Theorem fdec_bser bs : bytes bs -> fdec (bser bs) = utf8_lossy bs.
Proof.
  intros H. unfold fdec. rewrite <- (app_nil_r (bser bs)), bser_inverse by exact H.
  cbn [map]. rewrite decode_nil, app_nil_r. reflexivity.
Qed.

Lemma bser_nil_iff bs : bser bs = [] <-> bs = [].
Proof.
  split; [|intros ->; reflexivity]. destruct bs as [|b r]; [reflexivity|].
  unfold bser. cbn [flat_map]. unfold bser1.
  destruct (byte_serialized_unchanged b); [discriminate|].
  destruct (b =? 32); discriminate.
Qed.

