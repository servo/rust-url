(* Proofs/C02_QPort.v - L2 for the quirks port setter (url::quirks::set_port): the argument goes through the
   port state of the parser (setter context), whose result is a port <= 65535 different from the default of the
   scheme, or None; then Url::set_port_internal.  On a canonical record the result is canonical. *)
From RU Require Import Base.Prelude Base.Utf8 Base.Utf8Facts Model.AsciiSet Gen.Tables
  Model.PercentEncoding Model.HostT Model.UrlRecord Model.Parser Model.Setters Model.WF
  Proofs.ListN Proofs.C14_Set Proofs.C14_Enc Proofs.C14_Views Proofs.C02_Enc Proofs.C02_Parts
  Proofs.C02_Opaque Proofs.C02_Path Proofs.C02_PathL1 Proofs.C02_Reach Proofs.C16_RT Proofs.C02_AuthParts
  Proofs.C02_Auth Proofs.C02_AuthWf Proofs.C02_PathSp Proofs.C02_AuthSp Proofs.C02_AuthMain Proofs.C02_SetQF
  Proofs.C02_Canon Proofs.C02_SetPort Proofs.C03_ReachParts.
Open Scope N_scope.
Open Scope list_scope.

Lemma parse_port_ok ctx dflt l pt rem : parse_port ctx dflt l = POk (pt, rem) -> port_ok dflt pt.
Proof.
  intros H. pose proof (parse_port_le ctx dflt l pt rem H) as Hle. revert H. unfold parse_port.
  destruct (parse_port_loop ctx l 0 false) as [[[p any] rm]| |]; cbn [pbind]; try discriminate.
  destruct (negb any && ctx_eqb ctx CSetter && negb (inp_is_empty rm)); [discriminate|].
  intros E. inversion E; subst. clear E.
  destruct (negb any); cbn [orb] in *; [exact I|]. unfold opt_eqb in *.
  destruct dflt as [y|].
  - destruct (p =? y) eqn:Ey; [exact I|]. split; [exact Hle|]. intros Ed. inversion Ed; subst y.
    rewrite N.eqb_refl in Ey. discriminate Ey.
  - split; [exact Hle | discriminate].
Qed.

Section QPort.
Variable dbg : bool.
Variable hp hpo : list N -> result host.
Variable hd : host -> list N.

Theorem q_set_port_auth st sch ui h pt p q f v u' s : auth_ok hp hpo hd st sch ui h pt p q f -> st_is_file st = false ->
  q_set_port dbg (auth_url hd sch ui h pt p q f) v = Some (u', s) -> nlen (ser u') <= U32_MAX_P ->
  exists pt', auth_ok hp hpo hd st sch ui h pt' p q f /\ u' = auth_url hd sch ui h pt' p q f.
Proof.
  intros K Hnf. unfold q_set_port. rewrite (auth_cannot_port hp hpo hd st sch ui h pt p q f K Hnf). cbn [bindo].
  destruct (match h with HDomain [] => true | _ => false end) eqn:Eh.
  - intros E _. inversion E; subst. exists pt. split; [exact K | reflexivity].
  - assert (h <> HDomain []) as Hne by (intros ->; discriminate Eh).
    rewrite auth_scheme. cbn [bindo].
    destruct (parse_port CSetter (default_port sch) (input_new_no_trim v)) as [[p' rem]|e|] eqn:Ep; [| |discriminate].
    + rewrite set_port_internal_auth. cbn [bindo]. intros E Hb. inversion E; subst u' s. clear E.
      exists p'. split; [|reflexivity]. apply (auth_ok_port hp hpo hd st sch ui h pt p q f); try assumption.
      exact (parse_port_ok _ _ _ _ _ Ep).
    + intros E _. inversion E; subst. exists pt. split; [exact K | reflexivity].
Qed.

Theorem q_set_port_Canon u v u' s : Canon hp hpo hd u ->
  q_set_port dbg u v = Some (u', s) -> nlen (ser u') <= U32_MAX_P -> Canon hp hpo hd u'.
Proof.
  intros C. destruct (Canon_host_cases hp hpo hd u C) as [Hc | (st & sch & ui & h & pt & p & q & f & Hnf & K & Kp & ->)].
  - unfold q_set_port. rewrite Hc. intros E _. inversion E; subst. exact C.
  - intros E Hb. destruct (q_set_port_auth st sch ui h pt p q f v u' s K Hnf E Hb) as (pt' & K' & ->).
    exact (Canon_auth_st hp hpo hd st sch ui h pt' p q f Hnf K' Kp).
Qed.
End QPort.
