(* Proofs/C09_V6form.v - the output form of write_ipv6: layout, lower-case hex without leading
   zeros, and "exactly the first longest run of two or more zero pieces is compressed". *)
From RU Require Import Base.Prelude Model.Host Proofs.C09_V6 Proofs.C09_V6rt.

(* ------------------------------------------------------------------ runs of zero pieces *)

Definition zs (a : list N) : list bool := map (fun x => x =? 0) a.

(* piece k exists and is 0 *)
Definition zero_at (a : list N) (k : nat) : Prop := nth k (zs a) false = true.
Definition zero_run (a : list N) (i j : nat) : Prop :=
  (i < j <= 8)%nat /\ forall k, (i <= k < j)%nat -> zero_at a k.
Definition maximal_zero_run (a : list N) (i j : nat) : Prop :=
  zero_run a i j /\ (i = 0%nat \/ ~ zero_at a (i - 1)) /\ (j = 8%nat \/ ~ zero_at a j).

(* (cs, ce) is what the Standard asks for: nothing when no run has two pieces, otherwise the first
   among the longest maximal runs *)
Definition first_longest_run (a : list N) (cs ce : Z) : Prop :=
  (cs = (-1)%Z /\ ce = (-2)%Z /\ forall i j, maximal_zero_run a i j -> (j - i < 2)%nat)
  \/ (exists i j, cs = Z.of_nat i /\ ce = Z.of_nat j /\ maximal_zero_run a i j /\ (2 <= j - i)%nat
      /\ forall i' j', maximal_zero_run a i' j' ->
           (j' - i' <= j - i)%nat /\ ((i' < i)%nat -> (j' - i' < j - i)%nat)).

(* boolean versions over the zero pattern *)
Definition zatb (z : list bool) (k : nat) : bool := nth k z false.
Definition zrunb (z : list bool) (i j : nat) : bool :=
  (i <? j)%nat && (j <=? 8)%nat && forallb (zatb z) (seq i (j - i)).
Definition maxb (z : list bool) (i j : nat) : bool :=
  zrunb z i j && ((i =? 0)%nat || negb (zatb z (i - 1))) && ((j =? 8)%nat || negb (zatb z j)).
Definition R9 : list nat := seq 0 9.
Definition flb (z : list bool) (cs ce : Z) : bool :=
  if (cs =? -1)%Z then
    (ce =? -2)%Z && forallb (fun i => forallb (fun j => negb (maxb z i j) || (j - i <? 2)%nat) R9) R9
  else
    existsb (fun i => existsb (fun j =>
      (cs =? Z.of_nat i)%Z && (ce =? Z.of_nat j)%Z && maxb z i j && (2 <=? j - i)%nat
      && forallb (fun i' => forallb (fun j' =>
           negb (maxb z i' j') || ((j' - i' <=? j - i)%nat && (negb (i' <? i)%nat || (j' - i' <? j - i)%nat))) R9) R9) R9) R9.

Lemma zrunb_spec a i j : zrunb (zs a) i j = true <-> zero_run a i j.
Proof.
  unfold zrunb, zero_run, zero_at, zatb. rewrite !andb_true_iff, forallb_forall. split.
  - intros [[H1 H2] H3]. split; [lia|]. intros k Hk. apply H3. apply in_seq. lia.
  - intros [H1 H2]. repeat split; try lia. intros k Hk. apply in_seq in Hk. apply H2. lia.
Qed.

Lemma maxb_spec a i j : maxb (zs a) i j = true <-> maximal_zero_run a i j.
Proof.
  unfold maxb, maximal_zero_run. rewrite !andb_true_iff, !orb_true_iff, zrunb_spec.
  unfold zero_at, zatb. rewrite !negb_true_iff, !Nat.eqb_eq, <- !not_true_iff_false. tauto.
Qed.

Lemma max_in_R9 a i j : maximal_zero_run a i j -> In i R9 /\ In j R9.
Proof. intros [[H _] _]. unfold R9. split; apply in_seq; lia. Qed.

Lemma flb_spec a cs ce : flb (zs a) cs ce = true -> first_longest_run a cs ce.
Proof.
  unfold flb, first_longest_run. destruct (cs =? -1)%Z eqn:E.
  - intros H. apply andb_true_iff in H. destruct H as [H1 H2]. left. repeat split; try lia.
    intros i j Hm. destruct (max_in_R9 a i j Hm) as [Hi Hj].
    rewrite forallb_forall in H2. specialize (H2 i Hi). rewrite forallb_forall in H2. specialize (H2 j Hj).
    apply maxb_spec in Hm. rewrite Hm in H2. cbn [negb orb] in H2. lia.
  - intros H. right. apply existsb_exists in H. destruct H as (i & _ & H).
    apply existsb_exists in H. destruct H as (j & _ & H).
    repeat (apply andb_true_iff in H; destruct H as [H ?]).
    exists i, j. split; [lia|]. split; [lia|]. split; [apply maxb_spec; assumption|]. split; [lia|].
    intros i' j' Hm. destruct (max_in_R9 a i' j' Hm) as [Hi Hj].
    match goal with HF : forallb _ R9 = true |- _ =>
      rewrite forallb_forall in HF; specialize (HF i' Hi); rewrite forallb_forall in HF; specialize (HF j' Hj);
      apply maxb_spec in Hm; rewrite Hm in HF; cbn [negb orb] in HF; split; lia end.
Qed.

Definition flb_lzs (a : list N) : bool := let '(cs, ce) := longest_zero_sequence a in flb (zs a) cs ce.

Lemma flb_sweep : all_below 256 (fun k => flb_lzs (pat k)) = true.
Proof. vm_compute. reflexivity. Qed.

Lemma zs_nz a : zs (map nz a) = zs a.
Proof. unfold zs. rewrite map_map. apply map_ext. intros x. unfold nz. destruct (x =? 0) eqn:E; lia. Qed.

Theorem lzs_first_longest a : length a = 8%nat ->
  let '(cs, ce) := longest_zero_sequence a in first_longest_run a cs ce.
Proof.
  intros H. destruct (length8 a H) as (a0 & a1 & a2 & a3 & a4 & a5 & a6 & a7 & ->).
  destruct (nz_pat a0 a1 a2 a3 a4 a5 a6 a7) as (k & Hk & E).
  pose proof (all_below_spec _ _ flb_sweep k Hk) as S. cbv beta in S.
  rewrite <- E in S. unfold flb_lzs in S. rewrite lzs_nz, zs_nz in S.
  destruct (longest_zero_sequence [a0; a1; a2; a3; a4; a5; a6; a7]) as [cs ce].
  apply flb_spec. exact S.
Qed.

(* ------------------------------------------------------------------ layout *)

Fixpoint join_colon (l : list (list N)) : list N :=
  match l with
  | [] => []
  | [x] => x
  | x :: r => x ++ 58 :: join_colon r
  end.

Definition v6_layout (a : list N) (cs ce : Z) : list N :=
  if (cs =? -1)%Z then join_colon (map hex4 a)
  else
    flat_map (fun v => hex4 v ++ [58]) (firstn (Z.to_nat cs) a)
    ++ [58] ++ (if (cs =? 0)%Z then [58] else [])
    ++ join_colon (map hex4 (skipn (Z.to_nat ce) a)).

Local Arguments hex4 : simpl never.

Theorem write_ipv6_layout a : length a = 8%nat ->
  let '(cs, ce) := longest_zero_sequence a in write_ipv6 a = v6_layout a cs ce.
Proof.
  intros Hlen. pose proof (lzs_shape a Hlen) as Hs.
  destruct (length8 a Hlen) as (a0 & a1 & a2 & a3 & a4 & a5 & a6 & a7 & ->).
  unfold lzs_shape_b in Hs. unfold write_ipv6, write_ipv6_o.
  destruct (longest_zero_sequence [a0; a1; a2; a3; a4; a5; a6; a7]) as [cs ce] eqn:Hl.
  destruct (cs =? -1)%Z eqn:Ecs.
  - assert (cs = (-1)%Z) by lia. assert (ce = (-2)%Z) by lia. subst cs ce.
    unfold v6_layout. to_nat_consts. rewrite ?app_nil_r. reflexivity.
  - repeat (apply andb_true_iff in Hs; destruct Hs as [Hs ?]).
    assert (Hcs : (cs = 0 \/ cs = 1 \/ cs = 2 \/ cs = 3 \/ cs = 4 \/ cs = 5 \/ cs = 6)%Z) by lia.
    assert (Hce : (ce = 2 \/ ce = 3 \/ ce = 4 \/ ce = 5 \/ ce = 6 \/ ce = 7 \/ ce = 8)%Z) by lia.
    destruct Hcs as [->|[->|[->|[->|[->|[->| ->]]]]]];
    destruct Hce as [->|[->|[->|[->|[->|[->| ->]]]]]]; try lia;
    unfold v6_layout; to_nat_consts; rewrite ?app_nil_r; repeat rewrite <- app_assoc; reflexivity.
Qed.

(* ------------------------------------------------------------------ digits *)

Theorem hex4_form v : v < 65536 ->
  Forall (fun c => is_lower_hex c = true) (hex4 v) /\ (1 <= length (hex4 v) <= 4)%nat
  /\ hex_fold (hex4 v) 0 = Some v /\ no_leading_zero v (hex4 v) = true.
Proof.
  intros Hv. destruct (hex4_facts v Hv) as (H1 & _ & H3 & H4).
  split; [apply Forall_forall, forallb_forall, H1 | exact (conj (hex4_len v) (conj H3 H4))].
Qed.
