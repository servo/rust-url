(* Proofs/C06_SpliceHost.v - WHOLE-URL parser agreement, part 5: Url::set_host(Some x) on the canonical records with
   an authority.  The setter hands x to the host parser of the scheme type, and maps auth_url .. h .. to
   auth_url .. h' .. (host text and kind replaced, every offset behind it shifted); Parser::parse_url on the old
   serialization with the RAW argument in the host position returns exactly this record.
   Argument: free of TAB/LF/CR, ':' '/' '?' '#' '[' ']' '@' (and '\' for a special scheme) - the characters at
   which the parser's authority / host scan would stop or switch mode while the setter hands the text to the host
   parser whole.  Excluded result: the empty host on a URL with credentials or a port (F-C02-4). *)
From RU Require Import Base.Prelude Base.Utf8 Base.Utf8Facts Model.AsciiSet Gen.Tables
  Model.PercentEncoding Model.HostT Model.UrlRecord Model.Parser Model.Setters Model.WF
  Proofs.ListN Proofs.C03_WF Proofs.C06_List Proofs.C06_WFI Proofs.C06_Suffix Proofs.C06_PathParser Proofs.C06_Path
  Proofs.C14_Set Proofs.C14_Enc Proofs.C14_Views Proofs.C02_Enc Proofs.C02_Parts
  Proofs.C02_Opaque Proofs.C02_Path Proofs.C02_PathL1 Proofs.C02_Reach Proofs.C16_RT Proofs.C02_AuthParts
  Proofs.C02_Auth Proofs.C02_AuthWf Proofs.C02_PathSp Proofs.C02_AuthSp Proofs.C02_AuthMain Proofs.C02_SetQF
  Proofs.C02_Canon Proofs.C02_SetPort
  Proofs.C06_Agree Proofs.C06_AgreeUrl Proofs.C06_Splice Proofs.C06_SpliceAuth Proofs.C06_SpliceCred Proofs.C06_SplicePath.
Open Scope N_scope.
Open Scope list_scope.

(* the old serialization with x in the host position *)
Definition splice_host (u : url) (x : list N) : list N :=
  nfirstn (host_start u) (ser u) ++ x ++ nskipn (host_end u) (ser u).

(* a character of a host argument: the host scan of the parser walks over it, and so does the '@' scan *)
Definition hostarg (sp : bool) (c : N) : bool := hostc sp c && negb (c =? 64).

Lemma hostarg_hostc sp x : forallb (hostarg sp) x = true -> forallb (hostc sp) x = true.
Proof. apply forallb_impl. intros c H. unfold hostarg in H. apply andb_true_iff in H. tauto. Qed.

Lemma hostarg_plain sp x : forallb (hostarg sp) x = true -> forallb (plainc sp) x = true.
Proof.
  apply forallb_impl. intros c H. unfold hostarg, hostc, host_stop, plainc, auth_delim, is_tnl in *. destruct sp; lia.
Qed.

Lemma hostarg_58 sp x : forallb (hostarg sp) x = true -> forallb (fun c => negb (c =? 58)) x = true.
Proof. apply forallb_impl. intros c H. unfold hostarg, hostc, host_stop, is_tnl in *. destruct sp; lia. Qed.

Lemma hostarg_head sp x : forallb (hostarg sp) x = true ->
  match x with c :: _ => is_tnl c = false /\ (c =? 91) = false /\ (c =? 47) = false /\ ((c =? 92) && sp) = false | [] => True end.
Proof.
  destruct x as [|c r]; [tauto|]. cbn [forallb]. intros H. apply andb_true_iff in H. destruct H as [H _].
  unfold hostarg, hostc, host_stop, is_tnl in *. destruct sp; repeat split; lia.
Qed.

(* the frame of set_host_internal *)
Section Frame.
Variable dbg : bool.
Variable hd : host -> list N.
Variables (sch T R : list N) (ue : N) (pt : option N) (q f : option (list N)).
Notation A := ((sch ++ s_css) ++ T).
Notation U H hi := (hp_url (A ++ H) pt R (nlen sch) ue (nlen A) hi q f).

Lemma hpu_ser H hi : ser (U H hi) = A ++ H ++ port_text pt ++ R ++ qf_text q f.
Proof. rewrite hp_ser. rewrite <- !app_assoc. reflexivity. Qed.

Theorem set_host_internal_frame H hi h' :
  set_host_internal dbg hd (U H hi) h' None = Some (U (hd h') (hi_of_host h')).
Proof.
  unfold set_host_internal.
  change (host_end (U H hi)) with (nlen (A ++ H)). change (host_start (U H hi)) with (nlen A).
  change (path_start (U H hi)) with (nlen ((A ++ H) ++ port_text pt)).
  change (scheme_end (U H hi)) with (nlen sch). change (username_end (U H hi)) with ue. change (port (U H hi)) with pt.
  change (query_start (U H hi)) with (qf_qs (nlen (((A ++ H) ++ port_text pt) ++ R)) q).
  change (fragment_start (U H hi)) with (qf_fs (nlen (((A ++ H) ++ port_text pt) ++ R)) q f).
  unfold u_slice_from. rewrite hpu_ser.
  rewrite slice_from_o_some by (rewrite !nlen_app; lia).
  rewrite (app_assoc A H). rewrite nskipn_app_len. cbn [bindo].
  unfold truncate. rewrite <- (app_assoc A H). rewrite nfirstn_app_len.
  assert (has_authority dbg (set_ser (U H hi) A) = Some true) as ->.
  { unfold has_authority, byte_is, byte_at, u_slice_from, hp_url, qf_url. cbn [ser set_ser scheme_end].
    assert (A = sch ++ 58 :: 47 :: 47 :: T) as EA by (unfold s_css; rewrite <- !app_assoc; reflexivity).
    rewrite EA. rewrite slice_from_o_some by (rewrite nlen_app; lia). rewrite nskipn_app_len.
    destruct dbg; [|reflexivity].
    rewrite nnth_app_ge by lia. rewrite N.sub_diag. reflexivity. }
  cbn [bindo negb].
  rewrite adjust_ge by (rewrite (nlen_app (A ++ H)); lia). cbn [bindo].
  replace (((A ++ H) ++ port_text pt) ++ R) with ((A ++ H) ++ port_text pt ++ R) by (rewrite <- !app_assoc; reflexivity).
  rewrite adjust_qs, adjust_fs. cbn [bindo].
  f_equal. unfold hp_url, qf_url. f_equal; try (clear; llia); try (f_equal; clear; llia).
  rewrite <- !app_assoc. reflexivity.
Qed.
End Frame.

(* the canonical records with an authority *)
Section HostAuth.
Variable dbg : bool.
Variable hp hpo : list N -> result host.
Variable hd : host -> list N.
Hypothesis HRT : HostRT hp hpo hd.
Hypothesis HAb : host_above hp hpo hd.

Notation auth_ok := (auth_ok hp hpo hd).
Notation auth_url := (auth_url hd).
Notation auth_ser := (auth_ser hd).
Notation auth_front := (auth_front hd).
Notation auth_pre := (auth_pre hd).
Notation host_ok := (host_ok hp hpo hd).
Notation auth_cls := C06_SpliceAuth.auth_cls.

Lemma auth_url_hpu sch ui h pt p q f :
  auth_url sch ui h pt p q f
  = hp_url (((sch ++ s_css) ++ ui_text ui) ++ hd h) pt (pth_text p) (nlen sch) (nlen sch + 3 + ui_ulen ui)
           (nlen ((sch ++ s_css) ++ ui_text ui)) (hi_of_host h) q f.
Proof.
  rewrite (auth_url_hp hd). unfold auth_A, s_css. f_equal. rewrite !nlen_app. reflexivity.
Qed.

Lemma not_bracketed sp x : forallb (hostarg sp) x = true ->
  (match x with 91 :: _ => true | _ => false end) && ends_with_byte 93 x = false.
Proof.
  intros H. pose proof (hostarg_head sp x H) as Hh. destruct x as [|c r]; [reflexivity|].
  destruct Hh as (_ & H91 & _). apply N.eqb_neq in H91.
  destruct c as [|pp]; [reflexivity|]. do 7 (try (destruct pp as [pp|pp|]; try reflexivity)). exfalso. apply H91. reflexivity.
Qed.

(* set_host(Some x) on a canonical record, result explicit *)
Theorem set_host_auth st sch ui h pt p q f x u' : auth_ok st sch ui h pt p q f -> st_is_file st = false ->
  forallb (hostarg (st_is_special st)) x = true ->
  set_host dbg hp hpo hd (auth_url sch ui h pt p q f) (Some x) = Some (u', SOk) ->
  exists h', (if st_is_special st then hp x else hpo x) = Ok h'
    /\ (st_is_special st = true -> x <> [])
    /\ u' = auth_url sch ui h' pt p q f.
Proof.
  intros K Hnf Hx. unfold set_host.
  rewrite (proj2 (auth_url_wf hp hpo hd HRT _ _ _ _ _ _ _ _ K)). cbn [bindo].
  unfold u_scheme_type. rewrite (auth_scheme hd). cbn [bindo]. rewrite (ak_st _ _ _ _ _ _ _ _ _ _ _ K). rewrite Hnf.
  destruct ((match x with [] => true | _ => false end) && st_is_special st && negb false) eqn:Ee; [discriminate|].
  rewrite (not_bracketed _ x Hx).
  unfold find_byte. rewrite (find_byte_aux_none 58 x 0 (hostarg_58 _ x Hx)).
  destruct (if st_is_special st then hp x else hpo x) as [h'|e] eqn:Ehp; [|discriminate].
  rewrite auth_url_hpu. rewrite set_host_internal_frame. cbn [bindo]. intros E. inversion E; subst u'. clear E.
  exists h'. split; [reflexivity|]. split.
  - intros Hsp ->. rewrite Hsp in Ee. discriminate Ee.
  - rewrite auth_url_hpu. reflexivity.
Qed.

(* the new host is canonical for the scheme type *)
Lemma new_host_ok st x h' : st_is_file st = false -> (if st_is_special st then hp x else hpo x) = Ok h' ->
  (h' = HDomain [] -> st_is_special st = false) -> host_ok st h'.
Proof.
  intros Hnf Ehp Hemp.
  assert (h' = HDomain [] \/ h' <> HDomain []) as [->|Hne]
    by (destruct h' as [[|c d]|a|pcs]; [left; reflexivity | right; discriminate | right; discriminate | right; discriminate]).
  - left. split; [reflexivity | exact (Hemp eq_refl)].
  - apply (hpx_host_ok hp hpo hd HRT HAb st x h'); [unfold hpx; destruct (st_is_special st); exact Ehp | exact Hne].
Qed.

Lemma auth_ok_host st sch ui h pt p q f h' : auth_ok st sch ui h pt p q f -> host_ok st h' ->
  (h' = HDomain [] -> ui = UNone /\ pt = None) ->
  nlen (auth_ser sch ui h' pt p q f) <= U32_MAX_P -> auth_ok st sch ui h' pt p q f.
Proof.
  intros K Hh Hemp Hb. destruct K as [Ksch Kst Kui Kh Kemp Kpt Kp Kq Kf Kb Kbq Kbf].
  destruct (qf_bounds _ _ _ _ Hb) as [B1 B2]. constructor; try assumption.
  unfold C02_Auth.auth_ser, C02_Auth.auth_pre in Hb. rewrite !nlen_app in Hb. lia.
Qed.

Lemma splice_host_auth sch ui h pt p q f x :
  splice_host (auth_url sch ui h pt p q f) x
  = sch ++ 58 :: 47 :: 47 :: ui_text ui ++ x ++ port_text pt ++ pth_text p ++ qf_text q f.
Proof.
  unfold splice_host. rewrite auth_url_hpu.
  change (host_start (hp_url (((sch ++ s_css) ++ ui_text ui) ++ hd h) pt (pth_text p) (nlen sch) (nlen sch + 3 + ui_ulen ui)
            (nlen ((sch ++ s_css) ++ ui_text ui)) (hi_of_host h) q f)) with (nlen ((sch ++ s_css) ++ ui_text ui)).
  change (host_end (hp_url (((sch ++ s_css) ++ ui_text ui) ++ hd h) pt (pth_text p) (nlen sch) (nlen sch + 3 + ui_ulen ui)
            (nlen ((sch ++ s_css) ++ ui_text ui)) (hi_of_host h) q f)) with (nlen (((sch ++ s_css) ++ ui_text ui) ++ hd h)).
  rewrite hp_ser. rewrite <- (app_assoc ((sch ++ s_css) ++ ui_text ui) (hd h)). rewrite nfirstn_app_len.
  rewrite (app_assoc ((sch ++ s_css) ++ ui_text ui) (hd h)). rewrite nskipn_app_len.
  unfold s_css. rewrite <- !app_assoc. reflexivity.
Qed.

(* the head of the text behind "scheme://" for a special scheme *)
Lemma ui_head_cls ui Y : ui_ok ui -> ui <> UNone ->
  match ui_text ui ++ Y with c :: _ => is_tnl c = false /\ is_slash_or_bslash c = false | [] => False end.
Proof.
  intros Hui Hne.
  assert (forall u Z, clean T_USERINFO u = true -> u <> [] ->
            match u ++ Z with c :: _ => is_tnl c = false /\ is_slash_or_bslash c = false | [] => False end) as G.
  { intros u Z Hu Hn. destruct u as [|c u']; [contradiction|]. cbn [app]. apply plain_not_slash.
    pose proof (clean_ui_plain true _ Hu) as Hp. cbn [forallb] in Hp. apply andb_true_iff in Hp. tauto. }
  destruct ui as [|u|u pw]; [contradiction| |]; cbn [ui_ok ui_text] in *.
  - destruct Hui as [Hu Hn]. rewrite <- app_assoc. apply G; assumption.
  - destruct Hui as (Hu & _ & _). destruct u as [|c u']; [cbn [app]; split; reflexivity|].
    rewrite <- app_assoc. apply G; [exact Hu | discriminate].
Qed.

Lemma port_host_tail sp pt X : tail_ok X -> host_tail sp (port_text pt ++ X).
Proof.
  intros HX. destruct pt as [n|]; cbn [port_text app]; [split; reflexivity|].
  destruct X as [|c r]; [exact I|]. cbn [tail_ok] in HX. cbn [host_tail]. unfold host_stop, is_tnl. destruct sp; split; lia.
Qed.

(* WHOLE-URL agreement for set_host(Some x) on the classes with an authority *)
Theorem splice_host_auth_parse st sch ui h pt p q f x u' : auth_ok st sch ui h pt p q f -> auth_cls st p ->
  usv_list x -> forallb (hostarg (st_is_special st)) x = true ->
  (port_text pt ++ pth_text p ++ qf_text q f = [] -> first_ok (rev x)) ->
  set_host dbg hp hpo hd (auth_url sch ui h pt p q f) (Some x) = Some (u', SOk) ->
  (hosti u' = HI_None -> st_is_special st = false /\ ui = UNone /\ pt = None) ->
  nlen (ser u') <= U32_MAX_P ->
  parse_url dbg hp hpo hd None None (splice_host (auth_url sch ui h pt p q f) x) = POk u'.
Proof.
  intros K Hc Hx Hxa Hl E Hemp Hb. pose proof (auth_cls_nf st p Hc) as Hnf.
  destruct (set_host_auth st sch ui h pt p q f x u' K Hnf Hxa E) as (h' & Ehp & Hxne & ->).
  cbn [ser hosti C02_Auth.auth_url] in Hb, Hemp.
  assert (h' = HDomain [] -> st_is_special st = false /\ ui = UNone /\ pt = None) as Hemp'.
  { intros ->. apply Hemp. reflexivity. }
  pose proof (new_host_ok st x h' Hnf Ehp (fun E0 => proj1 (Hemp' E0))) as Kh'.
  pose proof (auth_ok_host st sch ui h pt p q f h' K Kh' (fun E0 => proj2 (Hemp' E0)) Hb) as K'.
  rewrite splice_host_auth.
  destruct x as [|x0 xr].
  { (* the empty argument: the empty host of a non-special URL; the spliced text is the canonical text *)
    assert (st_is_special st = false) as Hns by (destruct (st_is_special st); [exfalso; apply Hxne; reflexivity | reflexivity]).
    rewrite Hns in Ehp. destruct HRT as (_ & _ & Hd0 & Hp0). rewrite Hp0 in Ehp. inversion Ehp; subst h'.
    destruct (Canon_fixpoint dbg hp hpo hd HRT (auth_url sch ui (HDomain []) pt p q f)) as (Hfix & _ & Hasc).
    { destruct Hc as [[-> Hp']|[-> Hp']]; [apply Canon_auth | apply Canon_special]; assumption. }
    unfold Fixpoint_of_reparse, reparse in Hfix. rewrite utf8_lossy_ascii in Hfix by exact Hasc.
    cbn [ser C02_Auth.auth_url] in Hfix. rewrite (auth_ser_shape hd) in Hfix. rewrite Hd0 in Hfix. exact Hfix. }
  set (x := x0 :: xr) in *.
  destruct K as [Ksch Kst Kui Kh Kemp Kpt Kp Kq Kf Kb Kbq Kbf].
  set (back := pth_text p ++ qf_text q f).
  assert (tail_ok back) as Htail by (apply pth_tail; apply qf_qh_ok).
  pose proof (front_len hd sch ui h' pt) as FL. pose proof (ui_ulen_le ui) as UL.
  pose proof (ak_b _ _ _ _ _ _ _ _ _ _ _ K') as Kb'.
  apply (auth_parse dbg hp hpo hd st sch ui h' pt p q f _ (x ++ port_text pt ++ back) back (qf_text q f) true K').
  - destruct Hc as [[-> _]|[-> _]]; [left; reflexivity | right; split; [reflexivity|]].
    assert (ui = UNone \/ ui <> UNone) as [->|Hun] by (destruct ui; [left; reflexivity | right; discriminate | right; discriminate]).
    + cbn [ui_text app]. pose proof (hostarg_head _ x Hxa) as Hh. unfold x in *. cbn [app]. destruct Hh as (H1 & _ & H2 & H3).
      split; [exact H1|]. unfold is_slash_or_bslash. cbn [st_is_special] in H3. rewrite andb_true_r in H3. rewrite H2, H3. reflexivity.
    + apply ui_head_cls; assumption.
  - unfold x. destruct (ui_text ui); discriminate.
  - unfold back.
    apply first_ok_rev_parts.
    + apply okc_above. exact (ui_text_okc ui Kui).
    + apply okc_above. rewrite !forallb_app.
      rewrite (port_text_okc _ pt Kpt), (pth_text_okc p Kp), (qf_text_okc st q f Kq Kf). reflexivity.
    + exact Hl.
    + unfold x. destruct (ui_text ui); discriminate.
  - apply parse_userinfo_canon; [exact Kui | | clear - Kb' FL UL; llia].
    intros count last. rewrite scan_plain by (apply hostarg_plain; exact Hxa).
    apply port_text_scan; [exact Htail | exact (port_ok_le _ _ Kpt)].
  - rewrite (phap_unfold hp hpo hd st).
    rewrite (parse_host_raw hp hpo st x (port_text pt ++ back) Hnf (hostarg_hostc _ x Hxa) (port_host_tail _ pt back Htail)).
    assert ((if st_is_special st then hp else hpo) x = Ok h') as Ehp2 by (destruct (st_is_special st); exact Ehp).
    unfold x at 1. rewrite andb_false_r. rewrite Ehp2. cbn [of_result pbind].
    rewrite (hap_tail_canon hp hpo hd st (nlen sch) _ h' pt back Kh' (fun E0 => proj2 (proj2 (Hemp' E0)))); [| | exact Htail | clear - Kb' FL; llia].
    2:{ replace (nfirstn (nlen sch) ((((sch ++ [58]) ++ [47; 47]) ++ ui_text ui) ++ hd h')) with sch; [exact Kpt|].
        rewrite <- !app_assoc. symmetry. apply nfirstn_app_len. }
    rewrite (front_eq hd). reflexivity.
  - apply (pps_cls dbg hp hpo hd); [exact Kh' | exact Hc | apply qf_qh_ok].
  - apply pqf_canon; [reflexivity | exact Kq | exact Kf | exact (ak_bq _ _ _ _ _ _ _ _ _ _ _ K') | exact (ak_bf _ _ _ _ _ _ _ _ _ _ _ K')].
Qed.

Lemma auth_host_cut sch ui h pt p q f :
  nskipn (host_end (auth_url sch ui h pt p q f)) (ser (auth_url sch ui h pt p q f)) = port_text pt ++ pth_text p ++ qf_text q f.
Proof.
  rewrite auth_url_hpu.
  change (host_end (hp_url (((sch ++ s_css) ++ ui_text ui) ++ hd h) pt (pth_text p) (nlen sch) (nlen sch + 3 + ui_ulen ui)
            (nlen ((sch ++ s_css) ++ ui_text ui)) (hi_of_host h) q f)) with (nlen (((sch ++ s_css) ++ ui_text ui) ++ hd h)).
  rewrite hp_ser. apply nskipn_app_len.
Qed.

(* the exclusion F-C02-4 on records: the new host is empty while the URL is special, or has credentials or a port *)
Definition empty_host_ok (u u' : url) : Prop :=
  hosti u' = HI_None -> sp_of u = false /\ host_start u = scheme_end u + 3 /\ port u = None.

(* WHOLE-URL agreement for set_host(Some x): every canonical record with an authority; argument free of TAB/LF/CR,
   ':' '/' '?' '#' '[' ']' '@' ('\' for a special scheme); when nothing follows the host in the serialization the argument
   must not end in a C0 control or a space *)
Theorem splice_agreement_set_host u x u' : Canon hp hpo hd u -> has_authority_b u = true ->
  usv_list x -> forallb (hostarg (sp_of u)) x = true ->
  (nskipn (host_end u) (ser u) = [] -> first_ok (rev x)) ->
  set_host dbg hp hpo hd u (Some x) = Some (u', SOk) -> empty_host_ok u u' -> nlen (ser u') <= U32_MAX_P ->
  parse_url dbg hp hpo hd None None (splice_host u x) = POk u'.
Proof.
  intros C Hau. destruct (Canon_auth_cases hp hpo hd u C Hau) as (st & sch & ui & h & pt & p & q & f & -> & K & Hc).
  rewrite (sp_of_auth hp hpo hd _ _ _ _ _ _ _ _ K). rewrite auth_host_cut. intros Hx Hxa Hl E Hemp Hb.
  apply (splice_host_auth_parse st sch ui h pt p q f x u' K Hc Hx Hxa Hl E); [|exact Hb].
  intros Hi. destruct (Hemp Hi) as (H1 & H2 & H3). rewrite (sp_of_auth hp hpo hd _ _ _ _ _ _ _ _ K) in H1.
  split; [exact H1|]. split; [|exact H3]. cbn [host_start scheme_end C02_Auth.auth_url] in H2. apply (ui_text_nil). lia.
Qed.

(* and the result is canonical again *)
Theorem set_host_Canon u x u' : Canon hp hpo hd u -> has_authority_b u = true ->
  forallb (hostarg (sp_of u)) x = true ->
  set_host dbg hp hpo hd u (Some x) = Some (u', SOk) -> empty_host_ok u u' -> nlen (ser u') <= U32_MAX_P ->
  Canon hp hpo hd u'.
Proof.
  intros C Hau. destruct (Canon_auth_cases hp hpo hd u C Hau) as (st & sch & ui & h & pt & p & q & f & -> & K & Hc).
  rewrite (sp_of_auth hp hpo hd _ _ _ _ _ _ _ _ K). intros Hxa E Hemp Hb. pose proof (auth_cls_nf st p Hc) as Hnf.
  destruct (set_host_auth st sch ui h pt p q f x u' K Hnf Hxa E) as (h' & Ehp & Hxne & ->).
  cbn [ser C02_Auth.auth_url] in Hb.
  assert (h' = HDomain [] -> st_is_special st = false /\ ui = UNone /\ pt = None) as Hemp'.
  { intros ->. destruct (Hemp eq_refl) as (H1 & H2 & H3). rewrite (sp_of_auth hp hpo hd _ _ _ _ _ _ _ _ K) in H1.
    split; [exact H1|]. split; [|exact H3]. cbn [host_start scheme_end C02_Auth.auth_url] in H2. apply (ui_text_nil). lia. }
  pose proof (new_host_ok st x h' Hnf Ehp (fun E0 => proj1 (Hemp' E0))) as Kh'.
  pose proof (auth_ok_host st sch ui h pt p q f h' K Kh' (fun E0 => proj2 (Hemp' E0)) Hb) as K'.
  destruct Hc as [[-> Hp']|[-> Hp']]; [apply Canon_auth | apply Canon_special]; assumption.
Qed.

End HostAuth.
