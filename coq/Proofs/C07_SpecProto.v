(* Proofs/C07_SpecProto.v - the specification side of the C07 equivalence for the protocol setter:
   what the basic URL parser of Spec/Whatwg.v computes when it is run WITH a state override from the
   scheme start state on "value:" (scheme start state, scheme state), in closed form, and the
   invariants of URL records of the Standard that the protocol setter's decision relies on (`sane`):
   a URL that cannot have a username/password/port has none; a special URL has a host, and a
   non-empty one unless its scheme is "file"; a URL with an opaque path has no host. *)
From RU Require Import Base.Prelude Base.Utf8 Spec.Whatwg Spec.WhatwgFuel Proofs.C01_EqRun Proofs.C07_SpecRun.

(* steps 2.1 - 2.6 of the scheme state when a state override is given and c is ':' *)
Definition proto_refuses (u : spec_url) (buffer : list N) : bool :=
  (is_special_scheme (su_scheme u) && negb (is_special_scheme buffer))
  || (negb (is_special_scheme (su_scheme u)) && is_special_scheme buffer)
  || ((includes_credentials u || opt_is_some (su_port u)) && list_eqb buffer str_file)
  || (list_eqb (su_scheme u) str_file && host_is_empty (su_host u)).

(* a port equal to the default port of the scheme is stored as null *)
Definition renorm (u1 : spec_url) : spec_url :=
  match su_port u1 with
  | Some p => if port_is_default (su_scheme u1) p then set_port u1 None else u1
  | None => u1
  end.

Definition proto_decide (u : spec_url) (buffer : list N) : spec_url :=
  if proto_refuses u buffer then u else renorm (set_scheme u buffer).

Section ProtoRuns.
Variable hp : bool -> list N -> option spec_host.
Variable input : list N.
Variable ov : pstate.

Notation runO := (run hp input None (Some ov)).

(* the scheme state with a state override, on any remaining text *)
Theorem run_scheme_ov : forall t pre fuel buf a b pw u,
  input = pre ++ t -> (length t < fuel)%nat ->
  after_override (runO fuel (at_pos StScheme pre buf a b pw u))
  = SetTo (match scheme_scan buf t with Some (sch, _) => proto_decide u sch | None => u end).
Proof.
  induction t as [|c r IH]; intros pre fuel buf a b pw u Hin Hfuel;
    (destruct fuel as [|fuel]; [cbn [length] in Hfuel; lia|]); cbn [run].
  - rewrite (step_at hp input ov _ _ _ _ _ _ _ _ Hin). cbn zeta. cbn [hd_error tl]. reflexivity.
  - rewrite (step_at hp input ov _ _ _ _ _ _ _ _ Hin). cbn zeta. cbn [hd_error tl scheme_scan].
    unfold st_scheme. cbn [cpred cis]. destruct (is_scheme_cp c) eqn:Ec.
    + unfold push_buf, set_buf. cbn [m_state m_ptr m_buf m_at m_br m_pw m_url at_pos].
      rewrite (len_split hp input pre (c :: r) Hin). cbn [length].
      replace (Z.of_nat (length pre) + Z.of_nat (S (length r)) <=? Z.of_nat (length pre))%Z with false by lia.
      rewrite (inc_at hp StScheme pre c).
      apply (IH (pre ++ [c]) fuel (buf ++ [to_lower c]) a b pw u (snoc_split input pre c r Hin)).
      cbn [length] in Hfuel. lia.
    + destruct (c =? 58) eqn:E58; [|reflexivity].
      cbn [has_ov opt_is_some andb m_url m_buf at_pos]. unfold proto_decide, proto_refuses, renorm.
      destruct (is_special_scheme (su_scheme u) && negb (is_special_scheme buf)); [reflexivity|].
      destruct (negb (is_special_scheme (su_scheme u)) && is_special_scheme buf); [reflexivity|].
      destruct ((includes_credentials u || opt_is_some (su_port u)) && list_eqb buf str_file); [reflexivity|].
      destruct (list_eqb (su_scheme u) str_file && host_is_empty (su_host u)); reflexivity.
Qed.

(* the scheme start state with a state override, at the start of the text *)
Theorem run_scheme_start_ov : forall fuel u,
  (length input < fuel)%nat ->
  after_override (runO fuel (at_pos StSchemeStart [] [] false false false u))
  = SetTo (match spec_scheme input with Some (sch, _) => proto_decide u sch | None => u end).
Proof.
  intros fuel u Hfuel. destruct fuel as [|fuel]; [lia|]. cbn [run].
  assert (input = [] ++ input) as Hin by reflexivity.
  rewrite (step_at hp input ov _ _ _ _ _ _ _ _ Hin). cbn zeta. unfold spec_scheme.
  destruct input as [|c r] eqn:Ein; cbn [hd_error tl]; [reflexivity|].
  unfold st_scheme_start. cbn [cpred]. destruct (is_alpha c) eqn:Ea; [|reflexivity].
  unfold goto, push_buf, set_buf. cbn [m_state m_ptr m_buf m_at m_br m_pw m_url at_pos app length].
  replace (Z.of_nat (S (length r)) <=? Z.of_nat 0)%Z with false by lia.
  cbn [scheme_scan]. rewrite (is_alpha_scheme_cp c Ea).
  change (inc_ptr (mkM StScheme (Z.of_nat 0) [to_lower c] false false false u))
    with (at_pos StScheme ([] ++ [c]) ([] ++ [to_lower c]) false false false u).
  rewrite <- Ein in *.
  apply (run_scheme_ov r ([] ++ [c]) fuel ([] ++ [to_lower c]) false false false u).
  - rewrite Ein. reflexivity.
  - rewrite Ein in Hfuel. cbn [length] in Hfuel. lia.
Qed.

End ProtoRuns.

Lemma notnl_app a b : notnl (a ++ b) = notnl a ++ notnl b.
Proof. unfold notnl. apply filter_app. Qed.

(* the protocol attribute setter in closed form *)
Theorem spec_protocol_closed shp su v :
  spec_set shp SetProtocol su v
  = SetTo (match spec_scheme (notnl v ++ [58]) with Some (sch, _) => proto_decide su sch | None => su end).
Proof.
  cbn [spec_set]. unfold spec_basic_url_parse_override. fold (notnl (v ++ [58])).
  rewrite notnl_app. change (notnl [58]) with [58].
  change (mkM StSchemeStart 0%Z [] false false false su) with (at_pos StSchemeStart [] [] false false false su).
  apply run_scheme_start_ov. apply fuel_enough.
Qed.

(* invariants of URL records of the Standard *)
Record sane (su : spec_url) : Prop := mk_sane {
  sa_cannot : cannot_have_username_password_port su = true ->
              su_port su = None /\ includes_credentials su = false;
  sa_special : is_special su = true ->
               host_is_null (su_host su) = false
               /\ (list_eqb (su_scheme su) str_file = false -> host_is_empty (su_host su) = false);
  sa_opaque : has_opaque_path su = true -> su_host su = None
}.

(* a boolean recogniser *)
Definition sane_b (su : spec_url) : bool :=
  (negb (cannot_have_username_password_port su)
   || (negb (opt_is_some (su_port su)) && negb (includes_credentials su)))
  && (negb (is_special su)
      || (negb (host_is_null (su_host su))
          && (list_eqb (su_scheme su) str_file || negb (host_is_empty (su_host su)))))
  && (negb (has_opaque_path su) || host_is_null (su_host su)).

Lemma sane_b_sound su : sane_b su = true -> sane su.
Proof.
  unfold sane_b. intros H. apply andb_true_iff in H. destruct H as [H H3].
  apply andb_true_iff in H. destruct H as [H1 H2]. constructor.
  - intros Hc. rewrite Hc in H1. cbn [negb orb] in H1. apply andb_true_iff in H1. destruct H1 as [A B].
    apply negb_true_iff in A, B. split; [|exact B]. destruct (su_port su); [discriminate A | reflexivity].
  - intros Hs. rewrite Hs in H2. cbn [negb orb] in H2. apply andb_true_iff in H2. destruct H2 as [A B].
    apply negb_true_iff in A. split; [exact A|]. intros Hf. rewrite Hf in B. cbn [orb] in B.
    apply negb_true_iff in B. exact B.
  - intros Ho. rewrite Ho in H3. cbn [negb orb] in H3. destruct (su_host su); [discriminate H3 | reflexivity].
Qed.

(* the Standard's protocol setter keeps the invariants *)
Lemma scheme_default_port_special s d : scheme_default_port s = Some d -> is_special_scheme s = true.
Proof.
  unfold scheme_default_port, is_special_scheme, special_schemes. cbn [find existsb fst].
  destruct (list_eqb str_ftp s); [reflexivity|]. destruct (list_eqb str_file s); [discriminate|].
  destruct (list_eqb str_http s); [reflexivity|]. destruct (list_eqb str_https s); [reflexivity|].
  destruct (list_eqb str_ws s); [reflexivity|]. destruct (list_eqb str_wss s); [reflexivity|]. discriminate.
Qed.

Lemma file_is_special s : list_eqb s str_file = true -> is_special_scheme s = true.
Proof. intros H. apply list_eqb_spec in H. subst s. reflexivity. Qed.

Lemma set_scheme_sane su sch : sane su -> proto_refuses su sch = false -> sane (set_scheme su sch).
Proof.
  intros [S1 S2 S3] R. unfold proto_refuses in R.
  apply orb_false_iff in R. destruct R as [R D4]. apply orb_false_iff in R. destruct R as [R D3].
  apply orb_false_iff in R. destruct R as [D1 D2].
  assert (is_special_scheme sch = is_special_scheme (su_scheme su)) as Esp.
  { destruct (is_special_scheme (su_scheme su)), (is_special_scheme sch); try reflexivity; discriminate. }
  constructor; cbn [set_scheme su_scheme su_host su_port su_path];
    unfold cannot_have_username_password_port, is_special, includes_credentials, has_opaque_path in *;
    cbn [set_scheme su_scheme su_host su_port su_path su_username su_password].
  - intros Hc. destruct (list_eqb sch str_file) eqn:Ef.
    + rewrite andb_true_r in D3. apply orb_false_iff in D3. destruct D3 as [A B]. split; [|exact A].
      destruct (su_port su); [discriminate B | reflexivity].
    + rewrite orb_false_r in Hc. apply S1. rewrite Hc. reflexivity.
  - intros Hs. rewrite Esp in Hs. destruct (S2 Hs) as [A B]. split; [exact A|]. intros Hf.
    destruct (list_eqb (su_scheme su) str_file) eqn:Eof; [|exact (B eq_refl)].
    cbn [andb] in D4. exact D4.
  - exact S3.
Qed.

Lemma renorm_sane u1 : sane u1 -> sane (renorm u1).
Proof.
  intros S. unfold renorm.
  destruct (su_port u1) as [p|] eqn:Ep; [|exact S].
  destruct (port_is_default (su_scheme u1) p); [|exact S].
  destruct S as [T1 T2 T3].
  constructor; unfold cannot_have_username_password_port, is_special, includes_credentials, has_opaque_path in *;
    cbn [set_port su_scheme su_host su_port su_path su_username su_password] in *.
  - intros Hc. split; [reflexivity|]. exact (proj2 (T1 Hc)).
  - exact T2.
  - exact T3.
Qed.

Lemma proto_decide_sane su sch : sane su -> sane (proto_decide su sch).
Proof.
  intros S. unfold proto_decide. destruct (proto_refuses su sch) eqn:R; [exact S|].
  apply renorm_sane. apply set_scheme_sane; assumption.
Qed.

Theorem spec_protocol_sane shp su v su' : sane su -> spec_set shp SetProtocol su v = SetTo su' -> sane su'.
Proof.
  intros S H. rewrite spec_protocol_closed in H. injection H as <-.
  destruct (spec_scheme (notnl v ++ [58])) as [[sch rest]|]; [apply proto_decide_sane; exact S | exact S].
Qed.
