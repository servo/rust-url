(* Proofs/C16_RTParsed.v - the round trip for the origins OF PARSE RESULTS: what a tuple origin computed from
   a result of Url::parse (parser model, no base) consists of - its scheme is one of the five, its port is a
   u16, its host was returned by Host::parse - so that the premises "s is one of the five schemes" and
   "p <= 65535" of rt_plain / rt_bracket are discharged and the premise about the host becomes a premise about
   what Host::parse returns (hosts_rt).  One further premise: Hdom, Display writes a domain as it is (see
   Section Parsed). *)
From RU Require Import Base.Prelude
  Model.HostT Model.UrlRecord Model.Parser Model.Origin Proofs.ListN Proofs.C06_List
  Proofs.C16_Origin Proofs.C16_Colons Proofs.C16_RT Proofs.C16_RT6.

Definition port_ok (u : url) : Prop := match port u with Some q => q <= 65535 | None => True end.

Lemma parse_port_loop_bound ctx l : forall p any p' any' rem,
  parse_port_loop ctx l p any = POk (p', any', rem) -> p <= 65535 -> p' <= 65535.
Proof.
  induction l as [|c l IH]; intros p any p' any' rem H Hp; cbn [parse_port_loop] in H; [inversion H; subst; exact Hp|].
  destruct (is_tnl c); [eapply IH; eassumption|].
  destruct (is_digit c).
  - cbv zeta in H. destruct (65535 <? p * 10 + (c - 48)) eqn:E; [discriminate|]. eapply IH; [exact H|lia].
  - destruct (ctx_eqb ctx CUrlParser && negb (is_path_end c)); [discriminate|]. inversion H; subst. exact Hp.
Qed.

Lemma parse_port_bound ctx d l port rem : parse_port ctx d l = POk (port, rem) ->
  match port with Some q => q <= 65535 | None => True end.
Proof.
  unfold parse_port. intros H. pbi H a Ha. destruct a as [[p any] rem0]. apply parse_port_loop_bound in Ha; [|lia].
  destruct (negb any && ctx_eqb ctx CSetter && negb (inp_is_empty rem0)); [discriminate|].
  destruct (negb any || opt_eqb (Some p) d); inversion H; subst; [exact I|exact Ha].
Qed.

(* Hdom is a section hypothesis: after End Parsed it is a premise of every lemma whose proof uses it -
   after_double_slash_good (the one place where it is rewritten with) and what rests on it: parse_non_special_port,
   parse_with_scheme_good, url_parse_good, tuple_origin_facts, rt_parsed, rt_parsed_unicode.  For a Display
   function that computes on domains as the identity, callers supply it as (fun d => eq_refl), as rt_parsed_model
   in Proofs/C16_RT6Model.v does. *)
Section Parsed.
Variable dbg : bool.
Variable hp ho : list N -> result host.
Variable hd : host -> list N.
Hypothesis Hdom : forall d, hd (HDomain d) = d.

Definition host_from_hp (u : url) : Prop := forall h, host_of u = Some (Some h) -> exists t, hp t = Ok h.

Lemma phap_fields ctx st se ser l ser2 he hi port rem :
  parse_host_and_port hp ho hd ctx st se ser l = POk (ser2, he, hi, port, rem) ->
  exists hst X, (st = STSpecialNotFile -> exists t, hp t = Ok hst)
    /\ hi = hi_of_host hst /\ he = nlen (ser ++ hd hst) /\ ser2 = (ser ++ hd hst) ++ X
    /\ match port with Some q => q <= 65535 | None => True end.
Proof.
  unfold parse_host_and_port. intros H. pbi H a Ha. destruct a as [hst remaining]. cbv zeta in H.
  pbi H he0 Hhe. apply to_u32_val in Hhe. subst he0. pbi H u0 Hu0.
  assert (Hhp : st = STSpecialNotFile -> exists t, hp t = Ok hst).
  { intros ->. unfold parse_host in Ha. cbn [st_is_file st_is_special negb] in Ha.
    destruct (host_scan true false [] l) as [t rem0].
    destruct (scheme_type_eqb STSpecialNotFile STSpecialNotFile && match t with [] => true | _ => false end); [discriminate|].
    pbi Ha x Hx. inversion Ha; subst. exists t. destruct (hp t); cbn [of_result] in Hx; inversion Hx. reflexivity. }
  exists hst.
  destruct (inp_split_prefix_char 58 remaining) as [rem1|].
  - pbi H b Hb. destruct b as [port0 rem2]. apply parse_port_bound in Hb. inversion H; subst.
    destruct port as [q|]; [exists ([58] ++ decimal q)|exists []; rewrite app_nil_r]; repeat split; auto.
  - inversion H; subst. exists []. rewrite app_nil_r. repeat split; auto.
Qed.

Lemma wqf_fields ovr ctx st se ue hs he hi port ps ser rem u :
  with_query_and_fragment ovr ctx st se ue hs he hi port ps ser rem = POk u ->
  hosti u = hi /\ UrlRecord.port u = port /\ host_start u = hs /\ host_end u = he.
Proof.
  unfold with_query_and_fragment. intros H. pbi H a Ha. destruct a as [ser1 ps1].
  pbi H b Hb. destruct b as [[ser2 qs] fs]. inversion H; subst. repeat split.
Qed.

Lemma wqf_prefix ovr ctx st se ue hs he hi port ps ser rem u :
  with_query_and_fragment ovr ctx st se ue hs he hi port ps ser rem = POk u -> se + 3 < ps -> ps <= nlen ser ->
  nfirstn ps (UrlRecord.ser u) = nfirstn ps ser.
Proof.
  unfold with_query_and_fragment. intros H Hlt Hle. pbi H a Ha. destruct a as [ser1 ps1].
  pbi H b Hb. destruct b as [[ser2 qs] fs]. inversion H; subst. clear H. cbn [UrlRecord.ser].
  replace (ps =? se + 1) with false in Ha by lia. replace (ps =? se + 3) with false in Ha by lia.
  cbn [andb] in Ha. inversion Ha; subst. apply pqf_shape in Hb. destruct Hb as (X & -> & _).
  apply nfirstn_app_le. exact Hle.
Qed.

Lemma hi_domain_host hst : hi_of_host hst = HI_Domain -> exists c d, hst = HDomain (c :: d).
Proof. destruct hst as [[|c d]|a|pc]; cbn [hi_of_host]; intros H; try discriminate. eauto. Qed.

Lemma after_double_slash_good ovr ctx st se ser l u :
  after_double_slash dbg hp ho hd ovr ctx st se ser l = POk u -> nlen ser = se + 1 ->
  port_ok u /\ (st = STSpecialNotFile -> host_from_hp u).
Proof.
  unfold after_double_slash. cbv zeta. intros H Hse.
  pbi H a Ha. destruct a as [[ser1 ue] remaining]. apply parse_userinfo_shape in Ha. destruct Ha as [[X1 ->] _].
  pbi H hs Hhs. apply to_u32_val in Hhs. subst hs. pbi H b Hb. destruct b as [[[[ser2 he] hi] port] remaining2].
  apply phap_fields in Hb. destruct Hb as (hst & X2 & Hhp & -> & -> & -> & Hport).
  match type of H with (if ?c then _ else _) = _ => destruct c; [discriminate|] end.
  pbi H ps Hps. apply to_u32_val in Hps. subst ps.
  pbi H c Hc. destruct c as [[ser3 hh3] remaining3].
  apply (parse_path_start_cinv dbg hp ho) in Hc. destruct Hc as (k' & I' & _).
  set (ser1 := (ser ++ [47; 47]) ++ X1) in *. set (ser2 := (ser1 ++ hd hst) ++ X2) in *.
  pose proof (cinv_len st (nlen ser2) ser2 eq_refl k' ser3 I') as L3. destruct I' as [I' _].
  destruct (wqf_fields _ _ _ _ _ _ _ _ _ _ _ _ _ H) as (F1 & F2 & F3 & F4).
  split; [unfold port_ok; rewrite F2; exact Hport|].
  intros Hst h Hh. specialize (Hhp Hst). unfold host_of in Hh. rewrite F1 in Hh.
  destruct (hi_of_host hst) eqn:Ehi; try discriminate.
  - destruct (hi_domain_host hst Ehi) as (c & d & ->). subst ser2. rewrite Hdom in *. set (ser2 := (ser1 ++ c :: d) ++ X2) in *.
    assert (L1 : nlen ser1 = se + 3 + nlen X1) by (unfold ser1; rewrite !nlen_app; change (nlen [47; 47]) with 2; lia).
    assert (L2 : nlen ser2 = nlen ser1 + nlen (c :: d) + nlen X2) by (unfold ser2; rewrite !nlen_app; lia).
    assert (Hd1 : 1 <= nlen (c :: d)) by (rewrite nlen_cons; lia).
    pose proof (wqf_prefix _ _ _ _ _ _ _ _ _ _ _ _ _ H ltac:(lia) L3) as P.
    unfold u_slice, slice_o in Hh. rewrite F3, F4 in Hh.
    assert (Hsl : nfirstn (nlen (ser1 ++ c :: d) - nlen ser1) (nskipn (nlen ser1) (UrlRecord.ser u)) = c :: d).
    { rewrite <- (nfirstn_nskipn (nlen ser2) (UrlRecord.ser u)). rewrite P, I'.
      unfold ser2. rewrite <- !app_assoc. rewrite nskipn_app_exact. rewrite nlen_app.
      replace (nlen ser1 + nlen (c :: d) - nlen ser1) with (nlen (c :: d)) by lia. apply nfirstn_app_exact. }
    rewrite Hsl in Hh.
    destruct ((nlen ser1 <=? nlen (ser1 ++ c :: d)) && (nlen (ser1 ++ c :: d) <=? nlen (UrlRecord.ser u))); cbn [bindo] in Hh; [|discriminate].
    inversion Hh; subst. exact Hhp.
  - inversion Hh; subst. destruct hst as [[|c d]|a0|pc]; cbn [hi_of_host] in Ehi; inversion Ehi; subst. exact Hhp.
  - inversion Hh; subst. destruct hst as [[|c d]|a0|pc]; cbn [hi_of_host] in Ehi; inversion Ehi; subst. exact Hhp.
Qed.

Lemma parse_non_special_port ovr ctx st se ser l u :
  parse_non_special dbg hp ho hd ovr ctx st se ser l = POk u -> nlen ser = se + 1 -> port_ok u.
Proof.
  unfold parse_non_special. intros H Hse. destruct (inp_split_prefix_str s_ss l) as [rem|].
  - exact (proj1 (after_double_slash_good _ _ _ _ _ _ _ H Hse)).
  - pbi H ps Hps. pbi H a Ha. destruct a as [ser1 remaining].
    destruct (wqf_fields _ _ _ _ _ _ _ _ _ _ _ _ _ H) as (_ & F2 & _). unfold port_ok. rewrite F2. exact I.
Qed.

Lemma parse_with_scheme_good ovr sch l u :
  parse_with_scheme dbg hp ho hd ovr None sch l = POk u ->
  port_ok u /\ (In sch five_schemes -> host_from_hp u).
Proof.
  unfold parse_with_scheme. intros H. pbi H se Hse. apply to_u32_val in Hse. subst se. cbv zeta in H.
  assert (Hlen : nlen (sch ++ [58]) = nlen sch + 1) by (rewrite nlen_app; reflexivity).
  destruct (scheme_type_of sch) eqn:Est.
  - split; [unfold port_ok; rewrite (proj2 (parse_file_result dbg hp ho hd _ _ _ _ _ H)); exact I|].
    intros H5. rewrite (five_special sch H5) in Est. discriminate.
  - destruct (inp_count_matching is_slash_or_bslash l) as [sl rem].
    destruct (after_double_slash_good _ _ _ _ _ _ _ H Hlen) as [P1 P2]. split; [exact P1|]. intros _. exact (P2 eq_refl).
  - split; [exact (parse_non_special_port _ _ _ _ _ _ _ H Hlen)|].
    intros H5. rewrite (five_special sch H5) in Est. discriminate.
Qed.

Definition good_url (u : url) : Prop :=
  port_ok u /\ (forall s, scheme u = Some s -> In s five_schemes -> host_from_hp u).

Lemma url_parse_good p v : url_parse dbg hp ho hd p = POk v -> good_url v.
Proof.
  unfold url_parse, parse_url. cbv zeta. intros H.
  destruct (parse_scheme CUrlParser (input_new_trim_c0 (str_chars p))) as [[sch remaining]|]; [|discriminate].
  destruct (parse_with_scheme_good _ _ _ _ H) as [P1 P2].
  destruct (parse_with_scheme_shape dbg hp ho hd _ _ _ _ H) as [S1 _].
  split; [exact P1|]. intros s Hs H5. rewrite (S1 s Hs) in H5. exact (P2 H5).
Qed.

Lemma default_port_le s p : default_port s = Some p -> p <= 65535.
Proof.
  unfold default_port. intros H.
  destruct (list_eqb s s_http || list_eqb s s_ws);
    [|destruct (list_eqb s s_https || list_eqb s s_wss); [|destruct (list_eqb s s_ftp); [|discriminate]]];
    injection H as <-; lia.
Qed.

Lemma effective_port_ok u p : port_ok u -> port_or_known_default u = Some (Some p) -> p <= 65535.
Proof.
  unfold port_ok, port_or_known_default. destruct (UrlRecord.port u) as [q|]; [intros Hq [= <-]; exact Hq|].
  intros _. destruct (scheme u) as [s|]; [|discriminate]. cbn [bindo]. intros [= E]. exact (default_port_le s p E).
Qed.

(* a tuple origin computed from a good record (any fuel, any counter): through the blob recursion every record
   is a parse result, hence good *)
Lemma tuple_origin_facts f : forall c u s h p c', good_url u ->
  url_origin_fuel dbg hp ho hd f c u = OOk (Tuple s h p) c' ->
  In s five_schemes /\ p <= 65535 /\ (exists t, hp t = Ok h) /\ c' = c.
Proof.
  assert (Hnb : forall f c u s0 s h p c', good_url u -> scheme u = Some s0 -> s0 <> s_blob ->
            url_origin_fuel dbg hp ho hd f c u = OOk (Tuple s h p) c' ->
            In s five_schemes /\ p <= 65535 /\ (exists t, hp t = Ok h) /\ c' = c).
  { intros f0 c u s0 s h p c' [Gp Gh] Es Hne H.
    destruct (not_blob_result dbg hp ho hd f0 c u s0 _ c' Es Hne H) as [[H5 (h0 & p0 & Hh & Hp0 & [= -> -> ->] & ->)]|[_ Hn]].
    - exact (conj H5 (conj (effective_port_ok u p0 Gp Hp0) (conj (Gh s0 Es H5 h0 Hh) eq_refl))).
    - apply new_opaque_kind in Hn. discriminate Hn. }
  induction f as [|f IH]; intros c u s h p c' G H;
    (destruct (scheme u) as [s0|] eqn:Es; [|rewrite uof_unfold, Es in H; discriminate]);
    (destruct (list_eqb s0 s_blob) eqn:Eb; [|apply list_eqb_false in Eb; exact (Hnb _ c u s0 s h p c' G Es Eb H)]);
    rewrite uof_unfold, Es, blob_table, Eb in H;
    (destruct (path u) as [p0|]; [|discriminate]);
    (destruct (url_parse dbg hp ho hd p0) as [v|e|] eqn:Ev; [|apply new_opaque_kind in H; discriminate H|discriminate]).
  - discriminate.
  - exact (IH c v s h p c' (url_parse_good p0 v Ev) H).
Qed.

(* what has to be known about Host::parse: every host it returns has a plain or bracketed text that Display
   writes as host_fmt and that is read back as the same host *)
Definition hosts_rt : Prop :=
  forall t h, hp t = Ok h ->
    (plain_text (host_fmt hd h) \/ bracket_text (host_fmt hd h))
    /\ hd h = host_fmt hd h /\ hp (host_fmt hd h) = Ok h.

Theorem rt_parsed input u c o c' : hosts_rt ->
  url_parse dbg hp ho hd input = POk u -> url_origin dbg hp ho hd c u = OOk o c' -> is_tuple o = true ->
  nlen (ascii_serialization hd o) < U32_MAX_P ->
  exists w, url_parse dbg hp ho hd (ascii_serialization hd o) = POk w
            /\ url_origin dbg hp ho hd c' w = OOk o c'.
Proof.
  intros HR Hu Ho Ht HB. destruct o as [i|s h p]; [discriminate|].
  destruct (tuple_origin_facts _ c u s h p c' (url_parse_good input u Hu) Ho) as (H5 & Hp & (t & Hhp) & _).
  destruct (HR t h Hhp) as ([Hpl|Hbr] & Hfmt & Hrt).
  - destruct (proj1 (rt_plain dbg hp ho hd (fun d => d) s h p H5 Hp Hpl Hfmt Hrt HB)) as (w & Hw & Hw2).
    exists w. split; [exact Hw|apply Hw2].
  - destruct (proj1 (rt_bracket dbg hp ho hd (fun d => d) s h p H5 Hp Hbr Hfmt Hrt HB)) as (w & Hw & Hw2).
    exists w. split; [exact Hw|apply Hw2].
Qed.

(* the Unicode serialization: the ASCII one for IP hosts; for a domain whose ToUnicode form is plain ASCII and is
   read back by Host::parse as the same host, the same round trip *)
Theorem rt_parsed_unicode tu input u c s h p c' : hosts_rt ->
  url_parse dbg hp ho hd input = POk u -> url_origin dbg hp ho hd c u = OOk (Tuple s h p) c' ->
  nlen (ascii_serialization hd (Tuple s h p)) < U32_MAX_P ->
  match h with HDomain d => plain_text (tu d) /\ hp (tu d) = Ok h | _ => True end ->
  exists w, url_parse dbg hp ho hd (unicode_serialization hd tu (Tuple s h p)) = POk w
            /\ url_origin dbg hp ho hd c' w = OOk (Tuple s h p) c'.
Proof.
  intros HR Hu Ho HB Htu.
  destruct (tuple_origin_facts _ c u s h p c' (url_parse_good input u Hu) Ho) as (H5 & Hp & (t & Hhp) & _).
  destruct (HR t h Hhp) as (Htxt & Hfmt & Hrt).
  destruct h as [d|a|pc].
  - destruct Htu as [Hpl Hback].
    destruct (rt_plain_text dbg hp ho hd s (tu d) (HDomain d) p H5 Hp Hpl Hback Hfmt Htxt HB) as (w & Hw & Hw2).
    exists w. split; [exact Hw|apply Hw2].
  - rewrite unicode_is_ascii by (intros d; discriminate).
    exact (rt_parsed input u c (Tuple s (HIpv4 a) p) c' HR Hu Ho eq_refl HB).
  - rewrite unicode_is_ascii by (intros d; discriminate).
    exact (rt_parsed input u c (Tuple s (HIpv6 pc) p) c' HR Hu Ho eq_refl HB).
Qed.

End Parsed.
