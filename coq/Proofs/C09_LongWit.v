(* Proofs/C09_LongWit.v - F-C10-1 executed on the linked models (witnesses for C09 and C02), and what IdnaOK2 amounts
   to for the IDNA model.

   1. URL level, stand-in oracle idna_long (Proofs/C09_Long.v): Url::parse("http://x/") succeeds with a host in the
      class, and parsing its serialization fails with IdnaError - C02 (re-parse fixpoint) is violated on a plain parse
      result, the premise run_clean of the C09_inst2 theorems is necessary.
   2. For EVERY adapter: an answer of the IDNA model inside the class is never a fixed point, so IdnaOK (idna_of A cfg)
      fails as soon as the class is reached.
   3. The witness on the IDNA MODEL (Model/Uts46.v, called as host.rs calls it: URL deny list) with the lower-casing
      adapter of Proofs/Idna_C10b_Long.v: the host of 1000 ideographs U+4E00 + 20*i is accepted as a 2962-byte domain
      that Host::parse rejects; http://<the 1000 ideographs>/ parses and its serialization (2970 bytes) does not.
      Confirmed on the crates: Url::parse(u.as_str()) = Err(IdnaError), Host::parse(host_str) = Err.
      Of ToASCII only the mapping stage is run on the ideographs (low_long); the rejection of its answer is 2.
   4. IdnaOK2 (idna_of A cfg) follows from the output statement of C10, idempotence OUTSIDE the class at the URL
      options (idem_url2) and the dotted-decimal clause (IdnaOK2_of_model).  The three are established in
      Proofs/C09_Uts46.v (IdnaOK2_uts46, from C10_idem_statement3).  idem_url2_from_C10 derives idem_url2 from
      C10_idem_statement2, a statement that C10_idem2_refuted (Properties/C10.v) refutes for an adapter without
      MapPrefix: it is an implication with a premise that fails in general, not the route taken. *)
From Coq Require Import String.
From RU Require Import Base.Prelude Base.Utf8 Base.U32_c13 Gen.Tables Model.Punycode Model.Uts46
  Proofs.Idna_Sim Proofs.Idna_Api Proofs.Idna_Known Proofs.Idna_Hyp Proofs.Idna_C10b_Long Proofs.Idna_C10b_LongRej
  Proofs.Idna_C10b_Stmt Proofs.Idna_C10_Inner.
From RU Require Import Model.PercentEncoding Model.HostT Model.Host Model.UrlRecord Model.Parser Proofs.C09_Host Proofs.C09_InstIdna
  Proofs.C09_Long Proofs.C09_LongRun Proofs.C02_Reach Proofs.C02_AuthMain Proofs.C02_Enc Proofs.C02_Opaque.

Local Notation HOk := HostT.Ok.
Local Notation HErr := HostT.Err.

Notation lparse idna s := (parse_url true (host_parse idna) host_parse_opaque host_display None None s) (only parsing).

Definition wl_dummy : url := mkUrl [] 0 0 0 0 HI_None None 0 None None.
Definition wl_input : list N := B "http://x/".
Definition url_of (r : pres url) : url := match r with POk u => u | _ => wl_dummy end.
Definition wl_u : url := Eval vm_compute in url_of (lparse idna_long wl_input).

(* an ASCII text that ends in '/' and does not start with a C0 control or a space: nothing to decode, nothing to trim.
   The serializations below are re-parsed through this lemma: trim_matches reverses its input twice, and List.rev on
   two or three thousand bytes is what an evaluation of the whole run would mostly pay for *)
Lemma slash_text_input a : forallb (fun c => c <? 128) (a ++ [47]) = true ->
  match a with c :: _ => is_c0_or_space c = false | [] => True end ->
  input_new_trim_c0 (utf8_lossy (a ++ [47])) = a ++ [47].
Proof.
  intros Ha Hc. rewrite utf8_lossy_ascii.
  - apply trim_c0_id. split; [destruct a; [reflexivity | exact Hc] | rewrite rev_unit; reflexivity].
  - apply Forall_forall. intros c Hin. rewrite forallb_forall in Ha. specialize (Ha c Hin). unfold is_ascii. lia.
Qed.

Theorem url_long_refuted :
  lparse idna_long wl_input = POk wl_u
  /\ ser wl_u = (B "http://" ++ W_long_label ++ [47])%list
  /\ nonfile_input wl_input = true /\ special_input wl_input = true
  /\ lparse idna_long (utf8_lossy (ser wl_u)) = PErr IdnaError
  /\ lparse (cap idna_long) wl_input = PErr IdnaError.
Proof.
  assert (S : ser wl_u = (B "http://" ++ W_long_label ++ [47])%list) by (vm_compute; reflexivity).
  split; [vm_compute; reflexivity|]. split; [exact S|]. split; [vm_compute; reflexivity|]. split; [vm_compute; reflexivity|].
  split; [|vm_compute; reflexivity].
  rewrite S, app_assoc. unfold parse_url. rewrite slash_text_input by (vm_compute; reflexivity). vm_compute. reflexivity.
Qed.

Lemma wl_input_usv : usv_list wl_input.
Proof. apply Forall_forall. intros c Hc. vm_compute in Hc. unfold is_usv. repeat (destruct Hc as [<-|Hc]; [lia|]). destruct Hc. Qed.

(* the premise run_clean of reparse_nonfile_model2 cannot be dropped *)
Theorem reparse_needs_clean :
  ~ (forall dbg idna, IdnaOK2 idna -> forall input u, usv_list input -> nonfile_input input = true ->
       parse_url dbg (host_parse idna) host_parse_opaque host_display None None input = POk u ->
       parse_url dbg (host_parse idna) host_parse_opaque host_display None None (utf8_lossy (ser u)) = POk u).
Proof.
  intros H. destruct url_long_refuted as (E & _ & Hn & _ & R & _).
  pose proof (H true idna_long idna_long_ok2 wl_input wl_u wl_input_usv Hn E) as R'.
  rewrite R in R'. discriminate R'.
Qed.

(* an answer of the IDNA model is ASCII relative to the output statement of C10; inside the class it is rejected by
   the model itself (C10_long_rejected), whatever the adapter *)
Theorem class_answer_rejected A cfg d : Forall (fun c => c < 128) d -> known_c10_long d = true -> idna_of A cfg d = None.
Proof.
  intros Ha K. destruct (idna_of A cfg d) as [r|] eqn:E; [exfalso|reflexivity].
  apply idna_of_some in E. destruct E as (_ & b & E). exact (long_rejected A cfg d DENY_URL HAllow DIgnore b r Ha K E).
Qed.

Theorem class_answer_not_IdnaOK A cfg bs d : idna_of A cfg bs = Some d -> known_c10_long d = true ->
  ~ IdnaOK (idna_of A cfg).
Proof.
  intros H K OK.
  assert (Ha : Forall (fun c => c < 128) d).
  { eapply Forall_impl; [|exact (idna_out _ OK bs d H)]. intros c [Hc _]. exact Hc. }
  pose proof (idna_fix _ OK bs d H) as F. rewrite (class_answer_rejected A cfg d Ha K) in F. discriminate.
Qed.

Definition idna_low : list N -> option (list N) := idna_of lowad false.

(* the Punycode form under the URL deny list is the one of Proofs/Idna_C10b_Long.v (EMPTY deny list): only the mapping
   stage (process_inner) looks at the deny list and is run here; the encoder's output is w_c10_long_puny.  That the
   model refuses its answer is class_answer_rejected *)
Lemma low_long : idna_low W_C10_long = Some W_C10_long_A.
Proof.
  apply idna_of_some. split; [exact (proj1 w_c10_long)|]. exists false.
  apply (to_ascii_one_label lowad false W_C10_long DENY_URL HAllow W_C10_long_U (skipn 4 W_C10_long_A));
    [discriminate | | | | | apply w_c10_long_puny]; vm_compute; reflexivity.
Qed.

Lemma long_texts :
  known_c10_long W_C10_long_A = true /\ forallb (fun c => c <? 128) W_C10_long_A = true
  /\ ends_in_a_number W_C10_long_A = false /\ Host.starts_with 91 W_C10_long_A = false
  /\ list_eqb (decode (utf8_encode W_C10_long_A)) W_C10_long_A = true
  /\ Host.starts_with 91 W_C10_long_U = false /\ list_eqb (decode (utf8_encode W_C10_long_U)) W_C10_long = true.
Proof. vm_compute. repeat split; reflexivity. Qed.

Lemma low_long_A : idna_low W_C10_long_A = None.
Proof.
  destruct long_texts as (K & Ha & _). apply class_answer_rejected; [|exact K].
  apply Forall_forall. intros c Hc. rewrite forallb_forall in Ha. specialize (Ha c Hc). lia.
Qed.

Theorem model_long_host :
  idna_low W_C10_long = Some W_C10_long_A
  /\ known_c10_long W_C10_long_A = true
  /\ idna_low W_C10_long_A = None
  /\ host_parse idna_low W_C10_long_U = HOk (HDomain W_C10_long_A)
  /\ host_parse idna_low (host_display (HDomain W_C10_long_A)) = HErr IdnaError
  /\ host_in_class idna_low W_C10_long_U = true
  /\ host_parse (cap idna_low) W_C10_long_U = HErr IdnaError.
Proof.
  destruct long_texts as (K & _ & He & Hs & Hd & Hsu & Hdu). apply list_eqb_spec in Hd, Hdu.
  split; [exact low_long|]. split; [exact K|]. split; [exact low_long_A|].
  apply class_witness; try assumption; [rewrite Hdu; exact low_long | rewrite Hd; exact low_long_A].
Qed.

Definition W_long_url : list N := (B "http://" ++ W_C10_long_U ++ [47])%list.
Definition W_long_url_ser : list N := (B "http://" ++ W_C10_long_A ++ [47])%list.
Notation mparse_low s := (parse_url false (host_parse idna_low) host_parse_opaque host_display None None s) (only parsing).
Definition wm_u : url := Eval vm_compute in url_of (mparse_low W_long_url).

(* the two answers of idna_low that the runs below ask for, as a table in front of it: the parser is run with the table,
   so that ToASCII is not run again *)
Definition low_tab (bs : list N) : option (list N) :=
  if list_eqb bs W_C10_long then Some W_C10_long_A else if list_eqb bs W_C10_long_A then None else idna_low bs.

Lemma low_tab_low bs : low_tab bs = idna_low bs.
Proof.
  unfold low_tab. destruct (list_eqb bs W_C10_long) eqn:E1; [apply list_eqb_spec in E1; subst bs; symmetry; exact low_long|].
  destruct (list_eqb bs W_C10_long_A) eqn:E2; [apply list_eqb_spec in E2; subst bs; symmetry; exact low_long_A | reflexivity].
Qed.

Notation tparse s := (parse_url false (host_parse low_tab) host_parse_opaque host_display None None s) (only parsing).

Lemma table_long_url :
  tparse W_long_url = POk wm_u /\ ser wm_u = W_long_url_ser /\ nlen (ser wm_u) = 2970
  /\ tparse (utf8_lossy (ser wm_u)) = PErr IdnaError.
Proof.
  assert (S : ser wm_u = W_long_url_ser) by (vm_compute; reflexivity).
  split; [vm_compute; reflexivity|]. split; [exact S|]. split; [vm_compute; reflexivity|].
  rewrite S. unfold W_long_url_ser. rewrite app_assoc. unfold parse_url.
  rewrite slash_text_input by (vm_compute; reflexivity). vm_compute. reflexivity.
Qed.

Lemma mparse_low_tab s : mparse_low s = tparse s.
Proof.
  symmetry. apply parse_url_ext. intros x. unfold host_parse, host_parse_x. rewrite low_tab_low. reflexivity.
Qed.

Theorem model_long_url :
  mparse_low W_long_url = POk wm_u /\ ser wm_u = W_long_url_ser /\ nlen (ser wm_u) = 2970
  /\ mparse_low (utf8_lossy (ser wm_u)) = PErr IdnaError.
Proof.
  destruct table_long_url as (H1 & H2 & H3 & H4).
  exact (conj (eq_trans (mparse_low_tab _) H1) (conj H2 (conj H3 (eq_trans (mparse_low_tab _) H4)))).
Qed.

Theorem model_long_not_IdnaOK : ~ IdnaOK idna_low.
Proof.
  intros OK. pose proof low_long_A as R. rewrite (idna_fix idna_low OK _ _ low_long) in R. discriminate.
Qed.

(* idempotence at the options host.rs uses, outside the class *)
Definition idem_url2 (A : adapter) (cfg : bool) : Prop := forall d b r, bytes d ->
  to_ascii A cfg d DENY_URL HAllow DIgnore = U32_c13.Ok (b, r) -> Known_C10_long r = false ->
  exists b', to_ascii A cfg r DENY_URL HAllow DIgnore = U32_c13.Ok (b', r).

Theorem IdnaOK2_of_model A cfg :
  C10_ascii_statement A cfg -> idem_url2 A cfg -> v4_fixed A cfg -> IdnaOK2 (idna_of A cfg).
Proof.
  intros HA HI HV. destruct (idna_of_clauses A cfg (fun r => Known_C10_long r = false) HA HI HV) as (O & F & V).
  constructor; assumption.
Qed.

(* the second premise is C10_idem_statement2 at the URL options.  C10_idem_statement2 is refuted (C10_idem2_refuted,
   Properties/C10.v); the statement that holds is C10_idem_statement3, and idem_url2 comes from it in
   Proofs/C09_Uts46.v (idem_url2_of_idem3) *)
Lemma idem_url2_from_C10 A cfg : C10_idem_statement2 A cfg -> AdapterOK A -> NvNoTrunc A -> NvIdem A -> AsciiNoMark A ->
  idem_url2 A cfg.
Proof.
  intros HC H1 H2 H3 H4 d b r Hb E K. exact (HC H1 H2 H3 H4 d DENY_URL HAllow DIgnore b r Hb valid_deny_url E K).
Qed.
