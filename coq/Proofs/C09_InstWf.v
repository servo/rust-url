(* Proofs/C09_InstWf.v - C03's hypothesis HostWf (Proofs/C03_ReachParts.v: a host other than the empty one is
   displayed as a non-empty text that does not start with ':' / '@' and does not end with '/', the empty host as
   nothing) holds for the host MODEL (Model/Host.v: host_parse idna, host_parse_opaque, host_display) under the
   only premise IdnaOK idna; and with it the theorems of C03 / C05 stated under HostWf, instantiated
   with the host model.  (IdnaOK: met by idna_clean, not by the IDNA model - see the record in Proofs/C09_Host.v.) *)
From RU Require Import Base.Prelude Model.Host Model.UrlRecord Model.Parser Model.WF Proofs.C09_Host Proofs.C09_Inst
  Proofs.C04_ParseTotal Proofs.C03_ReachParts Proofs.C03_ReachFile Proofs.C03_ReachHost Proofs.C06_Suffix
  Proofs.C06_Main Proofs.C05_Comp Proofs.C05_CompSteps Proofs.C05_ParseAll Proofs.C05_CompReach Proofs.C05_BaseOk
  Proofs.C05_CompSteps3 Proofs.C03_WF Proofs.C05_Alphabet.

Theorem model_HostWf idna : IdnaOK idna -> HostWf (host_parse idna) host_parse_opaque host_display.
Proof. intros OK. apply HostRT_HostWf. exact (model_HostRT idna OK). Qed.

(* addresses (Ipv4Addr / Ipv6Addr values) are displayed as a non-empty text that does not start with ':' / '@' *)
Theorem model_IpDisp idna : IdnaOK idna -> IpDisp host_display.
Proof.
  intros _ h Hv. apply ip_disp_ok. destruct h as [d|a|p]; [destruct Hv | exact Hv | exact Hv].
Qed.

Section InstWf.
Variable dbg : bool.
Variable idna : list N -> option (list N).
Hypothesis OK : IdnaOK idna.

Notation hp := (host_parse idna).
Notation hpo := host_parse_opaque.
Notation hd := host_display.

(* C03: every record the parser model linked with the host model returns is well formed *)
Theorem parse_wf_model ovr base input u :
  match base with Some b => base_ok b = true /\ host_text_ok b | None => True end ->
  parse_url dbg hp hpo hd ovr base input = POk u -> wf_b u = true /\ host_text_ok u.
Proof using OK. exact (parse_url_wf_all dbg hp hpo hd ovr (model_HostWf idna OK) base input u). Qed.

(* C05: the component invariant and the five clauses for every parse result *)
Theorem parse_components_model dbg' ovr base input u :
  match base with Some b => CInv dbg' b /\ base_ok b = true | None => True end ->
  parse_url dbg hp hpo hd ovr base input = POk u -> CInv dbg' u /\ components_clean dbg' u.
Proof using OK.
  intros Hb Hp. pose proof (parse_url_cinv dbg dbg' hp hpo hd ovr base input u (model_HostWf idna OK) Hb Hp) as K.
  split; [exact K|]. destruct K as [[W _] C]. exact (comp_ok_components dbg' u W C).
Qed.

(* C05: every parse result is again a possible base *)
Theorem parse_base_ok_model ovr base input u :
  match base with Some b => base_ok b = true /\ host_text_ok b | None => True end ->
  parse_url dbg hp hpo hd ovr base input = POk u -> base_ok u = true /\ host_text_ok u.
Proof using OK. exact (parse_url_base_ok dbg hp hpo hd ovr base input u (model_HostWf idna OK)). Qed.

(* C05: all 19 mutators (quirks set_host with a port part and set_ip_host with an address value included), and the
   records reachable by parse, join and step_gate3-gated steps *)
Theorem step3_components_model u o u' :
  CInv dbg u -> step_gate3 hp hpo hd u o u' -> C05_History.apply_op dbg hp hpo hd u o = Some u' ->
  CInv dbg u' /\ components_clean dbg u'.
Proof using OK.
  intros K G H. pose proof (cinv_step3 dbg hp hpo hd (model_HostWf idna OK) u o u' (model_IpDisp idna OK) K G H) as K'.
  split; [exact K'|]. destruct K' as [[W _] C]. exact (comp_ok_components dbg u' W C).
Qed.

End InstWf.
