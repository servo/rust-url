(* Proofs/C07_PathKnown.v - class 1 of Known_C07 (a drive-letter-shaped piece AND two adjacent dots in the raw pathname
   value) contains every value on which the exclusion of the path equivalence applies (spath_okO of
   Proofs/C07_PathText.v: a ".." meets a drive-letter-shaped last segment of the Standard's list):
     - no two adjacent dots in the raw value => no buffer of the path state is a double-dot segment;
     - no drive-letter-shaped piece in the raw value => no segment of the Standard's list is drive-letter-shaped
   (the percent-encoding of the path set neither makes nor hides a dot or a drive letter). *)
From Coq Require Import ZifyBool ZifyN.
From RU Require Import Base.Prelude Base.Utf8 Base.Utf8Facts Model.HostT Model.UrlRecord Model.Parser
  Model.KnownC01 Model.KnownC07 Spec.Whatwg
  Proofs.C02_Path Proofs.C08_Input Proofs.C01_EqEnc Proofs.C01_EqRun Proofs.C01_EqDots Proofs.C01_EqPathSpec Proofs.C01_EqPath
  Proofs.C01_EqSpSpec Proofs.C01_EqSpPath Proofs.C01_KnownExact Proofs.C01_EqSpKnown
  Proofs.C07_SpecPath Proofs.C07_PathText.

(* two adjacent dots *)
Lemma has_dotdot_suffix a : forall b, has_dotdot (a ++ b) = false -> has_dotdot b = false.
Proof.
  induction a as [|x a IH]; intros b H; [exact H|]. cbn [app has_dotdot] in H.
  apply orb_false_iff in H. destruct H as [_ H]. exact (IH b H).
Qed.

Lemma dd_cases B : is_double_dot' B = true ->
  In B [[46; 46]; [46; 37; 50; 101]; [46; 37; 50; 69]; [37; 50; 101; 46]; [37; 50; 69; 46];
        [37; 50; 101; 37; 50; 101]; [37; 50; 101; 37; 50; 69]; [37; 50; 69; 37; 50; 101]; [37; 50; 69; 37; 50; 69]].
Proof.
  intros H. destruct B as [|a [|b [|c [|d [|e [|f [|g r]]]]]]]; cbn [is_double_dot'] in H; try discriminate H;
    unfold is_pct2e in H.
  - assert (a = 46 /\ b = 46) as [-> ->] by lia. cbn; tauto.
  - assert ((a = 46 /\ b = 37 /\ c = 50 /\ (d = 101 \/ d = 69)) \/ (a = 37 /\ b = 50 /\ (c = 101 \/ c = 69) /\ d = 46)) as K by lia.
    destruct K as [(-> & -> & -> & [->| ->])|(-> & -> & [->| ->] & ->)]; cbn; tauto.
  - assert (a = 37 /\ b = 50 /\ (c = 101 \/ c = 69) /\ d = 37 /\ e = 50 /\ (f = 101 \/ f = 69)) as K by lia.
    destruct K as (-> & -> & [->| ->] & -> & -> & [->| ->]); cbn; tauto.
Qed.

Lemma double_dot_has B y : is_double_dot B = true -> has_dotdot (B ++ y) = true.
Proof.
  rewrite is_double_dot_eq. intros H. apply dd_cases in H. cbn [In] in H.
  repeat (destruct H as [<-|H]; [reflexivity|]). destruct H.
Qed.

Lemma fin_ok_nodd P Braw y : has_dotdot (Braw ++ y) = false -> fin_ok P (upe in_path_set Braw) = true.
Proof.
  intros H. unfold fin_ok. rewrite double_dot_enc.
  destruct (is_double_dot Braw) eqn:E; [|reflexivity].
  rewrite (double_dot_has Braw y E) in H. discriminate H.
Qed.

Lemma spath_okO_nodd sp x : forall Braw P, has_dotdot (Braw ++ x) = false ->
  spath_okO sp x P (upe in_path_set Braw) = true.
Proof.
  induction x as [|c r IH]; intros Braw P H; cbn [spath_okO].
  - exact (fin_ok_nodd P Braw [] H).
  - destruct (sepc sp c).
    + rewrite (fin_ok_nodd P Braw (c :: r) H). cbn [andb].
      change (@nil N) with (upe in_path_set []). apply IH. cbn [app].
      apply (has_dotdot_suffix (Braw ++ [c])). rewrite <- app_assoc. exact H.
    + rewrite upe_snoc. apply IH. rewrite <- app_assoc. exact H.
Qed.

(* drive-letter-shaped pieces *)
Lemma sepc_path_end sp c : sepc sp c = true -> is_path_end c = true.
Proof. unfold sepc, is_path_end. destruct sp; cbn [andb]; lia. Qed.

Lemma hds_none_some t p : has_drive_segment_from None t = false -> has_drive_segment_from (Some p) t = false.
Proof.
  destruct t as [|a [|b rest]]; try reflexivity. rewrite !hds_cons. intros H.
  apply orb_false_iff in H. destruct H as [H1 H2]. rewrite H2, orb_false_r.
  rewrite andb_true_r in H1.
  destruct (is_alpha a && ((b =? 58) || (b =? 124))); [|reflexivity]. cbn [andb] in *.
  rewrite H1, andb_false_r. reflexivity.
Qed.

(* at the end of a segment the encoded buffer is not drive-letter-shaped *)
Lemma buffer_not_wdl p Braw x : is_path_end p = true ->
  match x with [] => True | c :: _ => is_path_end c = true end ->
  has_drive_segment_from (Some p) (Braw ++ x) = false ->
  starts_with_wdl (upe in_path_set Braw ++ [47]) = false.
Proof.
  intros Hp Hx H. destruct (starts_with_wdl (upe in_path_set Braw ++ [47])) eqn:E; [|reflexivity]. exfalso.
  apply wdl_enc_raw in E. unfold k_wdl in E.
  destruct Braw as [|a [|b rest]].
  { cbn in E. discriminate E. }
  { cbn [app starts_with_wdl] in E. change ((47 =? 58) || (47 =? 124)) with false in E. rewrite andb_false_r in E. discriminate E. }
  cbn [app starts_with_wdl] in E. apply andb_true_iff in E. destruct E as [E E3]. apply andb_true_iff in E. destruct E as [E1 E2].
  cbn [app] in H. rewrite (hds_hit p a b (rest ++ x) Hp E1 E2) in H; [discriminate H|].
  destruct rest as [|z rest]; cbn [app] in *; [exact Hx | exact E3].
Qed.

Lemma spath_okO_nodrive sp x : forall p Braw P, is_path_end p = true -> nowdl P = true ->
  has_drive_segment_from (Some p) (Braw ++ x) = false ->
  spath_okO sp x P (upe in_path_set Braw) = true.
Proof.
  induction x as [|c r IH]; intros p Braw P Hp HP H; cbn [spath_okO].
  - apply nowdl_fin_ok. exact HP.
  - destruct (sepc sp c) eqn:Esep.
    + rewrite (nowdl_fin_ok P _ HP). cbn [andb].
      pose proof (sepc_path_end sp c Esep) as Ec.
      change (@nil N) with (upe in_path_set []).
      apply (IH c [] (fin P (upe in_path_set Braw) true)); [exact Ec | |].
      * apply nowdl_fin; [exact HP|]. intros _ _. exact (buffer_not_wdl p Braw (c :: r) Hp Ec H).
      * cbn [app]. exact (hds_suffix Braw (Some p) c r H).
    + rewrite upe_snoc. apply (IH p (Braw ++ [c]) P Hp HP). rewrite <- app_assoc. exact H.
Qed.

(* class 1 of Known_C07 *)
(* the path state starts on the text itself (the value is not led by a separator) *)
Theorem known1_okO sp t : has_drive_segment t && has_dotdot t = false -> spath_okO sp t [] [] = true.
Proof.
  intros H. change (@nil N) with (upe in_path_set []). apply andb_false_iff in H. destruct H as [H|H].
  - apply (spath_okO_nodrive sp t 47 [] []); [reflexivity | reflexivity|]. cbn [app]. apply hds_none_some. exact H.
  - apply spath_okO_nodd. exact H.
Qed.

(* the path state starts behind the leading separator of the value *)
Theorem known1_okO_tail sp c r : sepc sp c = true -> has_drive_segment (c :: r) && has_dotdot (c :: r) = false ->
  spath_okO sp r [] [] = true.
Proof.
  intros Hc H. change (@nil N) with (upe in_path_set []). apply andb_false_iff in H. destruct H as [H|H].
  - apply (spath_okO_nodrive sp r c [] []); [exact (sepc_path_end sp c Hc) | reflexivity|]. cbn [app].
    exact (hds_suffix [] None c r H).
  - apply spath_okO_nodd. cbn [app]. exact (has_dotdot_suffix [c] r H).
Qed.
