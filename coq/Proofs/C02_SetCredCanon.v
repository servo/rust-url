(* Proofs/C02_SetCredCanon.v - L2 for set_password and set_username on the canonical forms: the canonical record
   with authority is an instance of the userinfo frame of C02_SetCred.v; the setters replace the userinfo by a
   canonical userinfo; the records without authority refuse both setters and stay unchanged. *)
From RU Require Import Base.Prelude Base.Utf8 Base.Utf8Facts Model.AsciiSet Gen.Tables
  Model.PercentEncoding Model.HostT Model.UrlRecord Model.Parser Model.Setters Model.WF
  Proofs.ListN Proofs.C14_Set Proofs.C14_Enc Proofs.C14_Views Proofs.C02_Enc Proofs.C02_Parts
  Proofs.C02_Opaque Proofs.C02_Path Proofs.C02_PathL1 Proofs.C02_Reach Proofs.C16_RT Proofs.C02_AuthParts
  Proofs.C02_Auth Proofs.C02_AuthWf Proofs.C02_PathSp Proofs.C02_AuthSp Proofs.C02_AuthMain Proofs.C02_SetQF
  Proofs.C02_Canon Proofs.C02_SetPort Proofs.C02_SetCred.
Open Scope N_scope.
Open Scope list_scope.

Definition ui_user (ui : uinfo) : list N := match ui with UNone => [] | UUser u | UPw u _ => u end.
Definition ui_rest (ui : uinfo) : list N := match ui with UNone => [] | UUser _ => [64] | UPw _ p => 58 :: p ++ [64] end.

Lemma ui_text_split ui : ui_text ui = ui_user ui ++ ui_rest ui.
Proof. destruct ui; reflexivity. Qed.

Lemma ui_ulen_user ui : ui_ulen ui = nlen (ui_user ui).
Proof. destruct ui; reflexivity. Qed.

Section CredCanon.
Variable dbg : bool.
Variable hp hpo : list N -> result host.
Variable hd : host -> list N.
Hypothesis HRT : HostRT hp hpo hd.

(* everything from the host on, and the offsets relative to its start *)
Definition au_X (h : host) pt (p : pth) q f : list N := hd h ++ port_text pt ++ pth_text p ++ qf_text q f.
Definition au_n (h : host) pt (p : pth) : N := nlen (hd h ++ port_text pt ++ pth_text p).

Lemma auth_url_sh sch ui h pt p q f :
  auth_url hd sch ui h pt p q f
  = sh_url sch (au_X h pt p q f) (nlen (hd h)) (nlen (hd h ++ port_text pt))
           (qf_qs (au_n h pt p) q) (qf_fs (au_n h pt p) q f) (hi_of_host h) pt (ui_user ui) (ui_rest ui).
Proof.
  unfold auth_url, sh_url, au_X, au_n. cbv zeta.
  assert (nlen (A sch) + nlen (ui_user ui) + nlen (ui_rest ui) = nlen sch + 3 + nlen (ui_text ui)) as Eb
    by (rewrite A_len, ui_text_split, nlen_app; lia).
  rewrite Eb. rewrite A_len. rewrite <- ui_ulen_user.
  assert (nlen (auth_front hd sch ui h pt) = nlen sch + 3 + nlen (ui_text ui) + nlen (hd h ++ port_text pt)) as Ef
    by (rewrite front_len, nlen_app; lia).
  assert (nlen (auth_pre hd sch ui h pt p) = nlen sch + 3 + nlen (ui_text ui) + nlen (hd h ++ port_text pt ++ pth_text p)) as Ep
    by (unfold auth_pre; rewrite nlen_app, front_len, !nlen_app; lia).
  rewrite Ef, Ep. f_equal.
  - unfold auth_ser, auth_pre, auth_front, A. rewrite ui_text_split. rewrite <- !app_assoc. reflexivity.
  - destruct q; reflexivity.
  - destruct f as [y|]; cbn [qf_fs option_map]; [|reflexivity]. f_equal. lia.
Qed.

(* replacing the userinfo inside the canonical form *)
Lemma auth_ok_ui st sch ui h pt p q f ui' : auth_ok hp hpo hd st sch ui h pt p q f ->
  h <> HDomain [] -> ui_ok ui' ->
  nlen (auth_ser hd sch ui' h pt p q f) <= U32_MAX_P -> auth_ok hp hpo hd st sch ui' h pt p q f.
Proof.
  intros K Hne Hui Hb. destruct K as [Ksch Kst Kui Kh Kemp Kpt Kp Kq Kf Kb Kbq Kbf].
  destruct (qf_bounds _ _ _ _ Hb) as [B1 B2]. constructor; try assumption.
  - intros E. contradiction.
  - unfold auth_ser, auth_pre in Hb. rewrite !nlen_app in Hb. lia.
Qed.

(* a displayed non-empty host starts with a byte that is neither ':' nor '@' *)
Lemma host_first st h : host_ok hp hpo hd st h -> h <> HDomain [] ->
  exists c0 R, hd h = c0 :: R /\ c0 <> 64 /\ c0 <> 58.
Proof.
  intros [[E _]|(_ & Ht & _)] Hne; [contradiction|].
  destruct (host_text_facts (hd h) Ht) as [Hf H58]. destruct Ht as (_ & Hn & _).
  destruct (hd h) as [|c0 R]; [contradiction|]. exists c0, R. split; [reflexivity|].
  cbn [forallb] in Hf. apply andb_true_iff in Hf. destruct Hf as [Hc _]. unfold plainc in Hc.
  split; [intros ->; discriminate Hc | intros ->; discriminate H58].
Qed.

Lemma ui_user_clean ui : ui_ok ui -> clean T_USERINFO (ui_user ui) = true.
Proof. destruct ui as [|u|u p]; cbn [ui_ok ui_user]; [reflexivity | tauto | tauto]. Qed.

(* the userinfo the two setters leave *)
Definition ui_clear (u : list N) : uinfo := match u with [] => UNone | _ => UUser u end.

Definition ui_set_pw (ui : uinfo) (pw : option (list N)) : uinfo :=
  match pw with
  | Some (c :: r) => UPw (ui_user ui) (uenc (c :: r))
  | _ => match ui with UPw u _ => ui_clear u | _ => ui end
  end.

Definition ui_set_user (ui : uinfo) (un : list N) : uinfo :=
  match ui with
  | UNone => match un with [] => UNone | _ => UUser (uenc un) end
  | UUser u => if list_eqb u (utf8_encode un) then ui else ui_clear (uenc un)
  | UPw u P => UPw (if list_eqb u (utf8_encode un) then u else uenc un) P
  end.

Lemma ui_clear_ok u : clean T_USERINFO u = true -> ui_ok (ui_clear u).
Proof. intros H. destruct u; [exact I | split; [exact H | discriminate]]. Qed.

Lemma uenc_ok s : usv_list s -> s <> [] -> clean T_USERINFO (uenc s) = true /\ uenc s <> [].
Proof. intros H Hn. split; [exact (uenc_clean s H) | intros E; exact (Hn (proj1 (uenc_nil_iff s) E))]. Qed.

Lemma ui_set_pw_ok ui pw : ui_ok ui -> usv_opt pw -> ui_ok (ui_set_pw ui pw).
Proof.
  intros Kui Hpw.
  assert (ui_ok (match ui with UPw u _ => ui_clear u | _ => ui end)) as Hcl
    by (destruct ui as [|u|u P]; [exact Kui | exact Kui | exact (ui_clear_ok u (proj1 Kui))]).
  destruct pw as [[|c r]|]; [exact Hcl | | exact Hcl].
  split; [exact (ui_user_clean ui Kui) | exact (uenc_ok (c :: r) Hpw ltac:(discriminate))].
Qed.

Lemma ui_set_user_ok ui un : ui_ok ui -> usv_list un -> ui_ok (ui_set_user ui un).
Proof.
  intros Kui Hun. destruct ui as [|u|u P]; cbn [ui_set_user].
  - destruct un as [|u0 ur]; [exact I | exact (uenc_ok (u0 :: ur) Hun ltac:(discriminate))].
  - destruct (list_eqb u (utf8_encode un)); [exact Kui | exact (ui_clear_ok _ (uenc_clean un Hun))].
  - destruct Kui as (Cu & CP). destruct (list_eqb u (utf8_encode un)); (split; [|exact CP]); [exact Cu | exact (uenc_clean un Hun)].
Qed.

(* on a record whose host is not empty both setters go through, and give the canonical record with the new userinfo *)
Section Eq.
Variables (st : scheme_type) (sch : list N) (ui : uinfo) (h : host) (pt : option N) (p : pth) (q f : option (list N)).
Hypothesis K : auth_ok hp hpo hd st sch ui h pt p q f.
Hypothesis Hnf : st_is_file st = false.
Hypothesis Hne : h <> HDomain [].
Notation SH := (sh_url sch (au_X h pt p q f) (nlen (hd h)) (nlen (hd h ++ port_text pt))
                       (qf_qs (au_n h pt p) q) (qf_fs (au_n h pt p) q f) (hi_of_host h) pt).

Lemma auth_can_cred : cannot_have_credentials_or_port (SH (ui_user ui) (ui_rest ui)) = Some false.
Proof.
  rewrite <- auth_url_sh, (auth_cannot_port hp hpo hd st sch ui h pt p q f K Hnf).
  destruct h as [[|c d]|a|pcs]; [contradiction Hne|..]; reflexivity.
Qed.

Theorem set_password_auth_eq pw : usv_opt pw ->
  set_password dbg (auth_url hd sch ui h pt p q f) pw = Some (auth_url hd sch (ui_set_pw ui pw) h pt p q f, SOk).
Proof.
  intros Hpw. pose proof auth_can_cred as Hc. rewrite !auth_url_sh.
  assert (pw_arg_empty pw ->
          set_password dbg (SH (ui_user ui) (ui_rest ui)) pw
          = Some (SH (ui_user (ui_set_pw ui pw)) (ui_rest (ui_set_pw ui pw)), SOk)) as Hempty.
  { intros He. replace (ui_set_pw ui pw) with (match ui with UPw u _ => ui_clear u | _ => ui end)
      by (destruct pw as [[|? ?]|]; [reflexivity | contradiction | reflexivity]).
    destruct ui as [|u|u P]; cbn [ui_user ui_rest] in *.
    - destruct (host_first st h (ak_h _ _ _ _ _ _ _ _ _ _ _ K) Hne) as (c0 & R & Eh0 & _ & H58).
      apply (set_password_noop_sh dbg sch _ _ _ _ _ _ _ [] [] c0 (R ++ port_text pt ++ pth_text p ++ qf_text q f) pw He);
        [unfold au_X; rewrite Eh0; reflexivity | exact H58 | exact Hc].
    - apply (set_password_noop_sh dbg sch _ _ _ _ _ _ _ u [64] 64 (au_X h pt p q f) pw He); [reflexivity | discriminate | exact Hc].
    - rewrite (set_password_clear_sh dbg sch _ _ _ _ _ _ _ u P pw He Hc). destruct u; reflexivity. }
  destruct pw as [[|c r]|]; [exact (Hempty I) | | exact (Hempty I)].
  exact (set_password_some_sh dbg sch _ _ _ _ _ _ _ (ui_user ui) (ui_rest ui) (c :: r) Hpw ltac:(discriminate) Hc).
Qed.

Theorem set_username_auth_eq un : usv_list un ->
  set_username dbg (auth_url hd sch ui h pt p q f) un = Some (auth_url hd sch (ui_set_user ui un) h pt p q f, SOk).
Proof.
  intros Hun. pose proof auth_can_cred as Hc. rewrite !auth_url_sh.
  destruct ui as [|u|u P]; cbn [ui_user ui_rest ui_set_user] in *.
  - destruct (host_first st h (ak_h _ _ _ _ _ _ _ _ _ _ _ K) Hne) as (c0 & R & Eh0 & H64 & H58).
    rewrite (set_username_none_sh dbg sch _ _ _ _ _ _ _ c0 (R ++ port_text pt ++ pth_text p ++ qf_text q f) un Hun)
      by (try exact Hc; try assumption; unfold au_X; rewrite Eh0; reflexivity).
    destruct un; reflexivity.
  - rewrite (set_username_user_sh dbg sch _ _ _ _ _ _ _ u un Hun Hc).
    destruct (list_eqb u (utf8_encode un)); [reflexivity | destruct (uenc un); reflexivity].
  - rewrite (set_username_pw_sh dbg sch _ _ _ _ _ _ _ u P un Hun Hc). destruct (list_eqb u (utf8_encode un)); reflexivity.
Qed.
End Eq.

(* with an empty host the setters refuse *)
Theorem set_password_auth st sch ui h pt p q f pw u' s : auth_ok hp hpo hd st sch ui h pt p q f -> st_is_file st = false ->
  usv_opt pw -> set_password dbg (auth_url hd sch ui h pt p q f) pw = Some (u', s) -> nlen (ser u') <= U32_MAX_P ->
  exists ui', auth_ok hp hpo hd st sch ui' h pt p q f /\ u' = auth_url hd sch ui' h pt p q f.
Proof.
  intros K Hnf Hpw. destruct (host_eq_dec_nil h) as [->|Hne].
  - unfold set_password. rewrite (auth_cannot_port hp hpo hd st sch ui _ pt p q f K Hnf). cbn [bindo].
    intros E _. inversion E; subst. exists ui. split; [exact K | reflexivity].
  - rewrite (set_password_auth_eq st sch ui h pt p q f K Hnf Hne pw Hpw). intros E Hb. inversion E; subst u' s.
    eexists. split; [|reflexivity].
    exact (auth_ok_ui st sch ui h pt p q f _ K Hne (ui_set_pw_ok ui pw (ak_ui _ _ _ _ _ _ _ _ _ _ _ K) Hpw) Hb).
Qed.

Theorem set_username_auth st sch ui h pt p q f un u' s : auth_ok hp hpo hd st sch ui h pt p q f -> st_is_file st = false ->
  usv_list un -> set_username dbg (auth_url hd sch ui h pt p q f) un = Some (u', s) -> nlen (ser u') <= U32_MAX_P ->
  exists ui', auth_ok hp hpo hd st sch ui' h pt p q f /\ u' = auth_url hd sch ui' h pt p q f.
Proof.
  intros K Hnf Hun. destruct (host_eq_dec_nil h) as [->|Hne].
  - unfold set_username. rewrite (auth_cannot_port hp hpo hd st sch ui _ pt p q f K Hnf). cbn [bindo].
    intros E _. inversion E; subst. exists ui. split; [exact K | reflexivity].
  - rewrite (set_username_auth_eq st sch ui h pt p q f K Hnf Hne un Hun). intros E Hb. inversion E; subst u' s.
    eexists. split; [|reflexivity].
    exact (auth_ok_ui st sch ui h pt p q f _ K Hne (ui_set_user_ok ui un (ak_ui _ _ _ _ _ _ _ _ _ _ _ K) Hun) Hb).
Qed.

(* L2 on Canon *)
Theorem set_password_Canon u pw u' s : Canon hp hpo hd u -> usv_opt pw ->
  set_password dbg u pw = Some (u', s) -> nlen (ser u') <= U32_MAX_P -> Canon hp hpo hd u'.
Proof.
  intros C Hpw. destruct (Canon_host_cases hp hpo hd u C) as [Hc | (st & sch & ui & h & pt & p & q & f & Hnf & K & Kp & ->)].
  - unfold set_password. rewrite Hc. intros E _. inversion E; subst. exact C.
  - intros E Hb. destruct (set_password_auth st sch ui h pt p q f pw u' s K Hnf Hpw E Hb) as (ui' & K' & ->).
    exact (Canon_auth_st hp hpo hd st sch ui' h pt p q f Hnf K' Kp).
Qed.

Theorem set_username_Canon u un u' s : Canon hp hpo hd u -> usv_list un ->
  set_username dbg u un = Some (u', s) -> nlen (ser u') <= U32_MAX_P -> Canon hp hpo hd u'.
Proof.
  intros C Hun. destruct (Canon_host_cases hp hpo hd u C) as [Hc | (st & sch & ui & h & pt & p & q & f & Hnf & K & Kp & ->)].
  - unfold set_username. rewrite Hc. intros E _. inversion E; subst. exact C.
  - intros E Hb. destruct (set_username_auth st sch ui h pt p q f un u' s K Hnf Hun E Hb) as (ui' & K' & ->).
    exact (Canon_auth_st hp hpo hd st sch ui' h pt p q f Hnf K' Kp).
Qed.
End CredCanon.
