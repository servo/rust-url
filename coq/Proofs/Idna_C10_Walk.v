(* Proofs/Idna_C10_Walk.v - the C10 output theorem: every Ok result of to_ascii is ASCII, has no upper-case letter and
   no member of the deny list.  The result is the passed-through prefix of the input followed by what the first output
   walk writes for each label of domain_buffer (to_ascii_walk_ff of Proofs/Idna_WalkApi.v); the prefix is clean by the
   invariant of Proofs/Idna_C10_Inner.v, and so is each label's output: a lower-cased input label (clean by the same
   invariant), the buffer label itself when it is ASCII, or xn-- and the Punycode form. *)
From RU Require Import Base.Prelude Base.Utf8 Base.U32_c13 Gen.Tables Model.Punycode Model.Uts46
  Proofs.C13_Ascii Proofs.Idna_Sim Proofs.Idna_Api Proofs.Idna_Known Proofs.Idna_Hyp Proofs.Idna_Redisc
  Proofs.Idna_C10_Deny Proofs.Idna_C10_Puny Proofs.Idna_C10_Prefix Proofs.Idna_C10_Inner
  Proofs.Idna_Mark Proofs.Idna_MarkWalk Proofs.Idna_MarkFffd Proofs.Idna_WalkFun Proofs.Idna_WalkInv Proofs.Idna_WalkApi.

Section Walk.
Variable cfg : bool.
Variable deny : N.
Hypothesis HL : LdhFree deny.

Lemma lowclean_lower m : lowclean deny m -> Forall (clean deny) (map to_lower m).
Proof.
  unfold lowclean. intros H. apply Forall_forall. intros x Hx. apply in_map_iff in Hx. destruct Hx as (c & <- & Hc).
  rewrite Forall_forall in H. exact (H c Hc).
Qed.

Lemma ascii_okc_clean label : is_ascii_l label = true -> Forall (okc deny) label -> Forall (clean deny) label.
Proof.
  intros Ea Hl. unfold is_ascii_l in Ea. rewrite forallb_forall in Ea. apply Forall_forall. intros c Hc.
  rewrite Forall_forall in Hl. apply okc_clean; [|exact (Hl c Hc)]. specialize (Ea c Hc). unfold is_ascii_cp in Ea. lia.
Qed.

(* what to_ascii writes for one label *)
Lemma out_label_clean label ip o : Forall (okc deny) label -> entry_ok deny ip ->
  out_label cfg is_ascii_l label ip = inl o -> Forall (clean deny) o.
Proof.
  intros Hl Hip Ho. destruct ip as [m|m|]; cbn [out_label] in Ho.
  - inversion Ho. subst o. exact (lowclean_lower m Hip).
  - destruct (is_ascii_l label) eqn:Ea; inversion Ho; subst o; [exact (ascii_okc_clean label Ea Hl)|exact (lowclean_lower m Hip)].
  - destruct (is_ascii_l label) eqn:Ea; [inversion Ho; subst o; exact (ascii_okc_clean label Ea Hl)|].
    unfold enc_label in Ho. destruct (encode_internal cfg label) as [p| |s] eqn:Ee; try discriminate. inversion Ho. subst o.
    change (Forall (clean deny) (XN_PREFIX ++ p)). apply Forall_app. split; [exact (xn_clean deny HL)|exact (encode_internal_clean cfg deny label p HL Hl Ee)].
Qed.

Lemma outs_clean labels : forall aps os, Forall (Forall (okc deny)) labels -> AllMixedClean deny aps ->
  outs cfg is_ascii_l labels aps = inl os -> Forall (Forall (clean deny)) os.
Proof.
  induction labels as [|label labels IH]; intros aps os Hl Ha Ho; [inversion Ho; constructor|].
  destruct aps as [|ip aps]; [inversion Ho; constructor|]. cbn [outs] in Ho.
  inversion Hl as [|? ? Hl1 Hl2]; subst. inversion Ha as [|? ? Ha1 Ha2]; subst.
  destruct (out_label cfg is_ascii_l label ip) as [o|s] eqn:E1; [|discriminate].
  destruct (outs cfg is_ascii_l labels aps) as [os'|s] eqn:E2; [|discriminate]. inversion Ho.
  constructor; [exact (out_label_clean label ip o Hl1 Ha1 E1)|exact (IH aps os' Hl2 Ha2 E2)].
Qed.
End Walk.

Section Main.
Variable A : adapter.
Variable cfg : bool.

Theorem to_ascii_clean d deny hy dns b r : NvNoTrunc A -> bytes d -> DenyUpper deny -> LdhFree deny ->
  to_ascii A cfg d deny hy dns = Ok (b, r) -> Forall (clean deny) r.
Proof.
  intros HN Hd HU HL H. apply to_ascii_dns_ignore in H.
  destruct (process_inner A cfg true hy deny d) as [ptu bd he db ap|s] eqn:Ei.
  2:{ unfold to_ascii, process in H. rewrite Ei in H. discriminate. }
  pose proof (process_inner_ff A cfg deny HU HL d Hd hy ptu bd he db ap HN Ei) as HI.
  destruct (inner_facts A cfg true hy deny d _ _ _ _ _ Hd Ei) as [(_ & -> & -> & Hne)|[(-> & -> & _)|[HB _]]].
  - (* the early return *)
    exfalso. unfold to_ascii, process in H. rewrite Ei in H.
    destruct (0 =? len d) eqn:E; [apply len_nil_iff in E; contradiction|]. cbn [andb] in H. discriminate.
  - (* the whole name passed through *)
    unfold to_ascii, process in H. rewrite Ei, N.eqb_refl, andb_false_r in H. cbn [dns_is_ignore negb] in H. inversion H. subst r.
    destruct HI as [HI|(_ & _ & P & rl & Hdd & HP & Hc & _)]; [discriminate HI|].
    assert (Hj : join_dots rl = []) by (apply len_zero; rewrite Hdd, len_app in HP; lia).
    rewrite Hdd, Hj, app_nil_r. exact Hc.
  - assert (Hlt : ptu <> len d) by (destruct HB as [Hx _]; lia).
    destruct he.
    { exfalso. unfold to_ascii, process in H. rewrite Ei in H.
      replace (ptu =? len d) with false in H by (symmetry; apply N.eqb_neq; exact Hlt). cbn [andb] in H. discriminate. }
    destruct HI as [HI|(Hdb & Hap & P & rl & Hdd & HP & Hc & _)]; [discriminate HI|].
    pose proof HB as (_ & _ & _ & _ & _ & P' & rl' & Hd' & HP' & Hcv & _).
    assert (HPc : Forall (clean deny) P').
    { rewrite <- (firstn_len_app P' (join_dots rl')), <- Hd', HP', <- HP, Hdd, firstn_len_app. exact Hc. }
    pose proof (to_ascii_walk_ff A cfg d deny hy ptu bd db ap Ei HB P' rl' Hd' HP' Hcv) as HW.
    destruct (outs cfg is_ascii_l (split_on DOT db) ap) as [os|s] eqn:Eo; [|rewrite HW in H; discriminate].
    assert (Hr : Forall (clean deny) (P' ++ join_dots os)).
    { apply Forall_app. split; [exact HPc|]. apply join_dots_Forall; [exact (dot_clean deny HL)|].
      exact (outs_clean cfg deny HL _ _ _ (split_on_Forall _ _ _ Hdb) Hap Eo). }
    destruct (stays is_ascii_l (split_on DOT db) ap).
    + destruct HW as [HW1 HW2]. rewrite HW2 in H. inversion H. subst r. rewrite <- HW1. exact Hr.
    + rewrite HW in H. inversion H. subst r. exact Hr.
Qed.

(* C10_ascii_statement, with the adapter premise NvNoTrunc *)
Theorem to_ascii_output d deny hy dns b r : NvNoTrunc A -> bytes d -> valid_deny deny ->
  to_ascii A cfg d deny hy dns = Ok (b, r) ->
  Forall (fun c => c < 128 /\ is_upper c = false /\ deny_member deny c = false) r.
Proof.
  intros HN Hd Hv H. destruct (valid_deny_facts deny Hv) as [HU HL].
  eapply Forall_impl; [|exact (to_ascii_clean d deny hy dns b r HN Hd HU HL H)].
  intros c. apply clean_final. exact HU.
Qed.
End Main.

(* to_ascii_output as C10_ascii_statement (Proofs/Idna_Hyp.v) *)
Lemma c10_ascii_under_notrunc : forall A cfg, NvNoTrunc A -> C10_ascii_statement A cfg.
Proof. intros A cfg HN d deny hy dns b r Hb Hv H. exact (to_ascii_output A cfg d deny hy dns b r HN Hb Hv H). Qed.

(* the premise NvNoTrunc cannot be dropped: a normalize_validate that returns a proper prefix.
   uts46.rs compares the normalised text with the decoded Punycode text by zip (no length check), so an
   adapter whose normalize_validate truncates makes to_ascii accept (and return, borrowed) a label whose
   decoded text has a denied ASCII character beyond the compared prefix. *)
Definition trunc1 : adapter :=
  {| map_normalize := fun l => l; normalize_validate := fun l => firstn 1 l;
     joining_type := fun _ => 0; bidi_class := toy_bc;
     is_mark := fun _ => false; is_virama := fun _ => false |}.
Definition W_C10_trunc : list N := [120; 110; 45; 45; 95; 45; 57; 102; 97].   (* xn--_-9fa, decodes to U+00E9 '_' *)

Lemma w_c10_trunc :
  to_ascii trunc1 true W_C10_trunc DENY_STD3 HAllow DVerify = Ok (true, W_C10_trunc) /\
  deny_member DENY_STD3 95 = true /\
  to_ascii toy true W_C10_trunc DENY_STD3 HAllow DVerify = Err.
Proof. vm_compute. repeat split; reflexivity. Qed.

Lemma c10_ascii_unconditional_refuted : exists A cfg, ~ C10_ascii_statement A cfg.
Proof.
  exists trunc1, true. intros H.
  assert (Hb : bytes W_C10_trunc) by (unfold W_C10_trunc; repeat constructor; unfold is_byte; lia).
  assert (Hv : valid_deny DENY_STD3) by (left; reflexivity).
  specialize (H W_C10_trunc DENY_STD3 HAllow DVerify true W_C10_trunc Hb Hv (proj1 w_c10_trunc)).
  rewrite Forall_forall in H.
  assert (Hin : In 95 W_C10_trunc) by (unfold W_C10_trunc; cbn [In]; tauto).
  destruct (H 95 Hin) as (_ & _ & Hm). rewrite (proj1 (proj2 w_c10_trunc)) in Hm. discriminate.
Qed.

Lemma toy_notrunc : NvNoTrunc toy.
Proof.
  intros l t H. cbn [toy normalize_validate] in H. apply (f_equal (@List.length N)) in H.
  rewrite app_length in H. destruct t; [reflexivity|]. cbn [List.length] in H. lia.
Qed.

(* a borrowed result is a fixed point *)
Lemma to_ascii_idem_borrowed A cfg d deny hy dns r :
  to_ascii A cfg d deny hy dns = Ok (true, r) -> to_ascii A cfg r deny hy dns = Ok (true, r).
Proof. intros H. pose proof (to_ascii_borrow A cfg d deny hy dns r H) as E. subst r. exact H. Qed.
