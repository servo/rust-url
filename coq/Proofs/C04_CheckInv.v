(* Proofs/C04_CheckInv.v - Url::check_invariants (url/src/lib.rs:686-808), the self-check named by the anchors of C04,
   as a three-valued function on the record model, and its tie to wf_b.

   TRANSCRIPTION (by hand, of the pinned source; not generated).  check_invariants returns Result<(), String>; its
   assert! / assert_eq! are LOCAL macros that return Err(..).  It can nevertheless panic: byte_at is an index
   expression on the byte slice (index out of range), slice(..) is a str range (out of range), port_str.parse::<u16>()
   is followed by .expect(..), and so is Url::parse(self.as_str()).  Outcomes: COk = Ok(()), CErr = Err(String),
   CPanic.  The function is written in continuation style, one definition per group of source lines; `chk` is the
   local assert! macro, `bp` an operation that may panic (byte_at / u_slice* / path / scheme of Model/UrlRecord.v:
   None = panic).  As everywhere in Model/UrlRecord.v a str slice is modelled by its range check (char boundaries are
   not modelled: the serialization of every reached record is ASCII - C03_ReachFull.reach3_inv_all).  The u32
   subtraction `host_start - 1` (line 727) is evaluated only after `host_start >= username_end + 2` passed, so it does
   not underflow.  u16::from_str = parse_u16 below (optional '+', at least one ASCII digit, no overflow).
   The re-parse tail (lines 791-806) takes the result of Url::parse(self.as_str()) as an argument.

   RESULTS.  ci_struct_eval: on a record with wf_b and host_text_ok (wfh) the structural part (lines 713-789) passes
   every check and reaches its continuation, unless the host is an IP address whose stored text differs from the
   Display text of the address - then it returns Err (no panic either).  check_invariants_no_panic: on a wfh record
   whose re-parse does not fail, check_invariants does not panic; check_invariants_ok: it returns Ok(()) when the record
   is a fixpoint of re-parsing (C02) and ip_text_ok.  Without the re-parse premise the .expect of line 791 is a real panic
   site: C02's known classes (e.g. F-C02-8) contain records whose serialization does not re-parse. *)
From RU Require Import Base.Prelude Base.Utf8 Model.HostT Model.UrlRecord Model.Parser Model.Setters Model.WF
  Proofs.ListN Proofs.C03_WF Proofs.C06_Suffix Proofs.C06_Main.
From RU Require Import Proofs.Decimal.

Inductive ci := COk | CErr | CPanic.
Definition chk (c : bool) (k : ci) : ci := if c then k else CErr.
Definition bp {A} (o : option A) (k : A -> ci) : ci := match o with Some a => k a | None => CPanic end.

Definition is_nil (l : list N) : bool := match l with [] => true | _ => false end.

(* <u16 as FromStr>::from_str *)
Definition parse_u16 (s : list N) : option N :=
  let d := match s with 43 :: r => r | _ => s end in
  if is_nil d || negb (forallb is_digit d) then None
  else let v := fold_left (fun a c => 10 * a + (c - 48)) d 0 in
       if v <=? 65535 then Some v else None.

Section CI.
Variable hd : host -> list N.      (* Display for Host (address.to_string(), h.to_string()) *)

(* 713-719 *)
Definition ci_scheme (u : url) (k : ci) : ci :=
  chk (1 <=? scheme_end u) (
  bp (byte_at u 0) (fun b0 => chk (is_alpha b0) (
  bp (u_slice u 1 (scheme_end u)) (fun sc => chk (forallb scheme_char sc) (
  bp (byte_at u (scheme_end u)) (fun c => chk (c =? 58) k)))))).

(* 723-732 *)
Definition ci_userinfo (u : url) (k : ci) : ci :=
  if negb (username_end u =? nlen (ser u)) then
    bp (byte_at u (username_end u)) (fun b =>
      if b =? 58 then chk (username_end u + 2 <=? host_start u) (bp (byte_at u (host_start u - 1)) (fun x => chk (x =? 64) k))
      else if b =? 64 then chk (host_start u =? username_end u + 1) k
      else chk (username_end u =? scheme_end u + 3) k)
  else k.

(* 733-748 *)
Definition ci_host (u : url) (k : ci) : ci :=
  chk (username_end u <=? host_start u) (chk (host_start u <=? host_end u) (
  bp (u_slice u (host_start u) (host_end u)) (fun hs =>
    match hosti u with
    | HI_None => chk (is_nil hs) k
    | HI_Ipv4 a => chk (list_eqb hs (hd (HIpv4 a))) k
    | HI_Ipv6 p => chk (list_eqb hs (hd (HIpv6 p))) k
    | HI_Domain => bp (scheme u) (fun sch => if st_is_special (scheme_type_of sch) then chk (negb (is_nil hs)) k else k)
    end))).

(* 749-758 *)
Definition ci_port (u : url) (k : ci) : ci :=
  if path_start u =? host_end u then chk (opt_eqb (port u) None) k
  else bp (byte_at u (host_end u)) (fun c => chk (c =? 58) (
       bp (u_slice u (host_end u + 1) (path_start u)) (fun ps =>
       bp (parse_u16 ps) (fun p => chk (opt_eqb (port u) (Some p)) k)))).

(* 759-762 *)
Definition ci_path_start (u : url) (k : ci) : ci :=
  if path_start u =? nlen (ser u) then k
  else bp (byte_at u (path_start u)) (fun b => chk ((b =? 47) || (b =? 35) || (b =? 63)) k).

(* 765-777 *)
Definition ci_no_authority (u : url) (k : ci) : ci :=
  chk (username_end u =? scheme_end u + 1) (chk (host_start u =? scheme_end u + 1) (chk (host_end u =? scheme_end u + 1) (
  chk (hi_eqb (hosti u) HI_None) (chk (opt_eqb (port u) None) (
  bp (path u) (fun p =>
    if starts_with s_ss p then
      bp (byte_at u (scheme_end u + 1)) (fun a => chk (a =? 47) (
      bp (byte_at u (scheme_end u + 2)) (fun b => chk (b =? 46) (chk (path_start u =? scheme_end u + 3) k))))
    else chk (path_start u =? scheme_end u + 1) k)))))).

(* 779-789 *)
Definition ci_query_fragment (u : url) (k : ci) : ci :=
  let kf := match fragment_start u with
            | Some f => chk (path_start u <=? f) (bp (byte_at u f) (fun b => chk (b =? 35)
                          (match query_start u, fragment_start u with Some q, Some f' => chk (q <? f') k | _, _ => k end)))
            | None => k
            end in
  match query_start u with
  | Some q => chk (path_start u <=? q) (bp (byte_at u q) (fun b => chk (b =? 63) kf))
  | None => kf
  end.

(* 713-789 *)
Definition ci_struct (u : url) (k : ci) : ci :=
  ci_scheme u (
  bp (u_slice_from u (scheme_end u + 1)) (fun rest =>
    if starts_with s_ss rest
    then ci_userinfo u (ci_host u (ci_port u (ci_path_start u (ci_query_fragment u k))))
    else ci_no_authority u (ci_query_fragment u k))).

(* 791-807; `other` = Url::parse(self.as_str()) *)
Definition ci_reparse (u : url) (other : pres url) : ci :=
  match other with
  | POk o =>
      chk (list_eqb (ser u) (ser o)) (chk (scheme_end u =? scheme_end o) (chk (username_end u =? username_end o) (
      chk (host_start u =? host_start o) (chk (host_end u =? host_end o) (
      (if hi_eqb (hosti u) (hosti o) then fun k => k
       else fun k => bp (host_str u) (fun a => bp (host_str o) (fun b =>
              chk (match a, b with None, Some [] => true | _, _ => false end) k)))
      (chk (opt_eqb (port u) (port o)) (chk (path_start u =? path_start o) (
       chk (opt_eqb (query_start u) (query_start o)) (chk (opt_eqb (fragment_start u) (fragment_start o)) COk)))))))))
  | _ => CPanic
  end.

Definition check_invariants (u : url) (other : pres url) : ci := ci_struct u (ci_reparse u other).

(* the one structural condition that wf_b does not record: the stored text of an IP host is the Display text *)
Definition ip_text_ok (u : url) : bool :=
  match hosti u with
  | HI_Ipv4 a => list_eqb (piece u (host_start u) (host_end u)) (hd (HIpv4 a))
  | HI_Ipv6 p => list_eqb (piece u (host_start u) (host_end u)) (hd (HIpv6 p))
  | _ => true
  end.
End CI.

(* ================================================================ proofs *)
From RU Require Import Proofs.C06_List.

Lemma hi_eqb_refl h : hi_eqb h h = true.
Proof. destruct h; cbn [hi_eqb]; try reflexivity; [apply N.eqb_refl | apply list_eqb_spec; reflexivity]. Qed.
Lemma opt_eqb_refl o : opt_eqb o o = true.
Proof. destruct o; cbn [opt_eqb]; [apply N.eqb_refl | reflexivity]. Qed.

(* u16::from_str on a non-empty digit string whose value fits *)
Lemma parse_u16_digits d v : forallb is_digit d = true -> d <> [] ->
  fold_left (fun a c => a * 10 + (c - 48)) d 0 = v -> v <= 65535 -> parse_u16 d = Some v.
Proof.
  intros HD HN HV Hv. unfold parse_u16.
  replace (match d with 43 :: r => r | _ => d end) with d.
  - rewrite HD. destruct d; [contradiction|]. cbn [is_nil orb negb].
    replace (fold_left _ _ 0) with v; [now replace (v <=? 65535) with true by lia|].
    rewrite <- HV. generalize 0. generalize (n :: d).
    induction l as [|c l IH]; intros a; cbn [fold_left]; [reflexivity|]. rewrite <- IH. f_equal. lia.
  - destruct d as [|c r]; [reflexivity|]. cbn [forallb] in HD. apply andb_true_iff in HD. destruct HD as [Hc _].
    destruct c as [|q]; [reflexivity|]. do 6 (destruct q as [q|q|]; try reflexivity). discriminate Hc.
Qed.

Lemma parse_u16_decimal p : p <= 65535 -> parse_u16 (decimal p) = Some p.
Proof.
  intros H. destruct (decimal_spec p (u16_decimal_fuel p H)) as (HV & HD & HN).
  exact (parse_u16_digits _ p HD HN HV H).
Qed.

Lemma nnth_lt l i : i < nlen l -> exists x, nnth l i = Some x.
Proof.
  intros H. unfold nnth. destruct (nth_error l (N.to_nat i)) as [x|] eqn:E; [exists x; reflexivity|].
  apply nth_error_None in E. unfold nlen in H. lia.
Qed.
Lemma byte_eqb_false_nnth l i b x : byte_eqb l i b = false -> nnth l i = Some x -> x =? b = false.
Proof. unfold byte_eqb. intros H E. rewrite E in H. exact H. Qed.
Lemma piece_len u a b : a <= b -> b <= nlen (ser u) -> nlen (piece u a b) = b - a.
Proof. intros H1 H2. unfold piece. rewrite nlen_nfirstn; [reflexivity|]. rewrite nlen_nskipn. lia. Qed.
Lemma is_nil_len l : is_nil l = (nlen l =? 0).
Proof. destruct l; [reflexivity|]. rewrite nlen_cons. cbn [is_nil]. lia. Qed.
Lemma u_slice_piece u a b : a <= b -> b <= nlen (ser u) -> u_slice u a b = Some (piece u a b).
Proof. intros H1 H2. unfold u_slice, piece. apply slice_o_some; assumption. Qed.
Lemma starts_with_ss_2 l : starts_with s_ss l = true -> nnth l 0 = Some 47 /\ nnth l 1 = Some 47.
Proof.
  destruct l as [|a [|b r]]; cbn [starts_with s_ss]; try discriminate; [rewrite andb_false_r; discriminate|].
  intros H. apply andb_true_iff in H. destruct H as [H1 H2]. apply andb_true_iff in H2. destruct H2 as [H2 _].
  apply N.eqb_eq in H1, H2. subst. split; reflexivity.
Qed.
Lemma starts_with_ss_of l : nnth l 0 = Some 47 -> nnth l 1 = Some 47 -> starts_with s_ss l = true.
Proof. destruct l as [|a [|b r]]; cbn; try discriminate. intros H1 H2. inversion H1; inversion H2; subst. reflexivity. Qed.

Lemma nth_error_firstn {A} (l : list A) : forall n i, (i < n)%nat -> nth_error (firstn n l) i = nth_error l i.
Proof.
  induction l as [|x l IH]; intros n i H; [destruct n; destruct i; reflexivity|].
  destruct n as [|n]; [lia|]. destruct i as [|i]; [reflexivity|]. cbn [firstn nth_error]. apply IH. lia.
Qed.
Lemma nnth_nfirstn l n i : i < n -> nnth (nfirstn n l) i = nnth l i.
Proof. intros H. unfold nnth, nfirstn. apply nth_error_firstn. lia. Qed.

Section Eval.
Variable hd : host -> list N.
Variable u : url.
Hypothesis W : wf_b u = true.
Hypothesis HT : host_text_ok u.

Lemma ci_scheme_eval k : ci_scheme u k = k.
Proof.
  destruct (wf_parts u W) as [H _]. unfold wf_scheme in H.
  apply andb_true_iff in H. destruct H as [H Hc]. apply andb_true_iff in H. destruct H as [H Hall].
  apply andb_true_iff in H. destruct H as [H1 Ha].
  unfold ci_scheme. rewrite H1. cbn [chk]. unfold byte_at, u_slice.
  destruct (ser u) as [|c r] eqn:Es; [discriminate|].
  change (nnth (c :: r) 0) with (Some c). cbn [bp]. rewrite Ha. cbn [chk].
  pose proof (byte_eqb_lt _ _ _ Hc) as Hlt. pose proof (byte_eqb_nnth _ _ _ Hc) as Hn.
  rewrite slice_o_some by lia. cbn [bp]. change (nskipn 1 (c :: r)) with r.
  assert (nfirstn (scheme_end u) (c :: r) = c :: nfirstn (scheme_end u - 1) r) as E.
  { unfold nfirstn. replace (N.to_nat (scheme_end u)) with (S (N.to_nat (scheme_end u - 1))) by lia. reflexivity. }
  rewrite E in Hall. cbn [forallb] in Hall. apply andb_true_iff in Hall. rewrite (proj2 Hall). cbn [chk].
  rewrite Hn. cbn [bp]. reflexivity.
Qed.

Lemma rest_eval : u_slice_from u (scheme_end u + 1) = Some (nskipn (scheme_end u + 1) (ser u))
  /\ starts_with s_ss (nskipn (scheme_end u + 1) (ser u)) = has_authority_b u.
Proof.
  destruct (wf_scheme_facts u W) as (_ & Hb & Hlt). split.
  - unfold u_slice_from. apply slice_from_o_some. lia.
  - unfold has_authority_b. rewrite (nskipn_cons_of_nnth _ _ _ (byte_eqb_nnth _ _ _ Hb)). reflexivity.
Qed.

Section Auth.
Hypothesis HA : has_authority_b u = true.

(* the conjuncts of wf_authority, by name *)
Lemma auth_raw :
  (if username_end u =? host_start u then username_end u =? scheme_end u + 3
   else if byte_eqb (ser u) (username_end u) 58
        then (username_end u + 2 <=? host_start u) && byte_eqb (ser u) (host_start u - 1) 64
        else byte_eqb (ser u) (username_end u) 64 && (host_start u =? username_end u + 1)) = true
  /\ (if username_end u =? host_start u then negb (byte_eqb (ser u) (username_end u) 58) else true) = true
  /\ match hosti u with HI_None => host_start u =? host_end u | _ => true end = true
  /\ ((path_start u =? nlen (ser u)) || byte_eqb (ser u) (path_start u) 47 || byte_eqb (ser u) (path_start u) 63
      || byte_eqb (ser u) (path_start u) 35) = true.
Proof.
  destruct (wf_parts u W) as (_ & H & _). rewrite HA in H. unfold wf_authority in H.
  repeat match type of H with (_ && _) = true => apply andb_true_iff in H; let H' := fresh "K" in destruct H as [H H'] end.
  repeat split; assumption.
Qed.

Lemma ci_path_start_eval k : ci_path_start u k = k.
Proof.
  destruct auth_raw as (_ & _ & _ & H). unfold ci_path_start.
  destruct (path_start u =? nlen (ser u)); [reflexivity|]. cbn [orb] in H. unfold byte_at, byte_eqb in *.
  destruct (nnth (ser u) (path_start u)) as [b|]; [|discriminate]. cbn [bp].
  replace ((b =? 47) || (b =? 35) || (b =? 63)) with true; [reflexivity|].
  symmetry. apply orb_true_iff in H. destruct H as [H|H]; [apply orb_true_iff in H; destruct H as [H|H]|]; rewrite H; cbn; rewrite ?orb_true_r; reflexivity.
Qed.

Lemma ci_port_eval k : ci_port u k = k.
Proof.
  pose proof (wf_auth_facts u W HA) as F. pose proof (af_port F) as P. pose proof (af_len F) as L.
  unfold ci_port. destruct (port u) as [p|].
  - destruct P as (P1 & P2 & P3 & P4). replace (path_start u =? host_end u) with false by lia.
    unfold byte_at. rewrite (byte_eqb_nnth _ _ _ P1). cbn [bp]. rewrite N.eqb_refl. cbn [chk].
    unfold u_slice. rewrite slice_o_some by lia. cbn [bp]. rewrite P4, (parse_u16_decimal p P3). cbn [bp opt_eqb].
    rewrite N.eqb_refl. reflexivity.
  - rewrite P, N.eqb_refl. reflexivity.
Qed.

Lemma ci_host_eval k : ci_host hd u k = if ip_text_ok hd u then k else CErr.
Proof.
  pose proof (wf_auth_facts u W HA) as F. destruct auth_raw as (_ & _ & Hn & _).
  pose proof (af_hs F) as F1. pose proof (af_he F) as F2. pose proof (af_ps F) as F3. pose proof (af_len F) as F4.
  unfold ci_host. replace (username_end u <=? host_start u) with true by lia.
  replace (host_start u <=? host_end u) with true by lia. cbn [chk].
  rewrite u_slice_piece by lia. cbn [bp]. unfold ip_text_ok.
  destruct (hosti u) as [| |a|p] eqn:Eh.
  - apply N.eqb_eq in Hn. rewrite Hn, piece_empty. reflexivity.
  - rewrite (scheme_eval u W). cbn [bp].
    assert (is_nil (piece u (host_start u) (host_end u)) = false) as E.
    { rewrite is_nil_len, piece_len by lia. assert (has_host u = true) as Hh by (unfold has_host; rewrite Eh; reflexivity).
      destruct (HT Hh) as (T1 & _). lia. }
    rewrite E. cbn [negb chk]. destruct (st_is_special _); reflexivity.
  - unfold chk. reflexivity.
  - unfold chk. reflexivity.
Qed.

Lemma ci_userinfo_eval k : ci_userinfo u k = k.
Proof.
  pose proof (wf_auth_facts u W HA) as F. destruct auth_raw as (R1 & R2 & Rn & Rp).
  pose proof (af_hs F) as F1. pose proof (af_he F) as F2. pose proof (af_ps F) as F3. pose proof (af_len F) as F4.
  unfold ci_userinfo. destruct (username_end u =? nlen (ser u)) eqn:El; [reflexivity|]. cbn [negb].
  assert (Hlt : username_end u < nlen (ser u)) by lia.
  destruct (nnth_lt _ _ Hlt) as (b & Eb). unfold byte_at. rewrite Eb. cbn [bp].
  destruct (username_end u =? host_start u) eqn:E1.
  - (* no userinfo: the byte at username_end is neither ':' nor '@' *)
    apply negb_true_iff in R2. rewrite (byte_eqb_false_nnth _ _ _ _ R2 Eb).
    assert (b =? 64 = false) as E64.
    { destruct (has_host u) eqn:Hh.
      - destruct (HT Hh) as (_ & _ & T3). apply N.eqb_eq in E1. rewrite <- E1 in T3. exact (byte_eqb_false_nnth _ _ _ _ T3 Eb).
      - assert (hosti u = HI_None) as Hi by (unfold has_host in Hh; destruct (hosti u); try discriminate; reflexivity).
        rewrite Hi in Rn. apply N.eqb_eq in Rn. apply N.eqb_eq in E1.
        pose proof (af_port F) as P. destruct (port u) as [p|].
        + destruct P as (P1 & _). rewrite <- Rn, <- E1 in P1. congruence.
        + assert (path_start u = username_end u) as Ep by lia. rewrite Ep in Rp. rewrite El in Rp. cbn [orb] in Rp.
          unfold byte_eqb in Rp. rewrite Eb in Rp. destruct (b =? 64) eqn:E; [|reflexivity]. apply N.eqb_eq in E. subst b.
          cbn in Rp. discriminate. }
    rewrite E64, R1. reflexivity.
  - destruct (byte_eqb (ser u) (username_end u) 58) eqn:E58.
    + apply andb_true_iff in R1. destruct R1 as [Q1 Q2].
      assert (b =? 58 = true) as -> by (unfold byte_eqb in E58; rewrite Eb in E58; exact E58).
      rewrite Q1. cbn [chk]. rewrite (byte_eqb_nnth _ _ _ Q2). cbn [bp]. reflexivity.
    + apply andb_true_iff in R1. destruct R1 as [Q1 Q2].
      rewrite (byte_eqb_false_nnth _ _ _ _ E58 Eb).
      assert (b =? 64 = true) as -> by (unfold byte_eqb in Q1; rewrite Eb in Q1; exact Q1).
      rewrite Q2. reflexivity.
Qed.
End Auth.

Lemma ci_query_fragment_eval k : ci_query_fragment u k = k.
Proof.
  pose proof (wf_qf_facts u W) as Q. pose proof (qf_q Q) as Q1. pose proof (qf_f Q) as Q2. pose proof (qf_qf Q) as Q3.
  unfold ci_query_fragment. cbv zeta.
  assert (Kf : match fragment_start u with
            | Some f => chk (path_start u <=? f) (bp (byte_at u f) (fun b => chk (b =? 35)
                          (match query_start u, fragment_start u with Some q, Some f' => chk (q <? f') k | _, _ => k end)))
            | None => k
            end = k).
  { destruct (fragment_start u) as [f|]; [|reflexivity]. destruct Q2 as (A & B & C).
    replace (path_start u <=? f) with true by lia. cbn [chk]. unfold byte_at. rewrite (byte_eqb_nnth _ _ _ B). cbn [bp chk].
    destruct (query_start u) as [q|]; [|reflexivity]. replace (q <? f) with true by lia. reflexivity. }
  rewrite Kf. destruct (query_start u) as [q|]; [|reflexivity]. destruct Q1 as (A & B & C).
  replace (path_start u <=? q) with true by lia. cbn [chk]. unfold byte_at. rewrite (byte_eqb_nnth _ _ _ B). reflexivity.
Qed.

Lemma ci_no_authority_eval k : has_authority_b u = false -> ci_no_authority u k = k.
Proof.
  intros HA. pose proof (wf_noauth_facts u W HA) as F. destruct (wf_scheme_facts u W) as (S1 & S2 & S3).
  pose proof (wf_qf_facts u W) as Q. pose proof (qf_q Q) as Q1. pose proof (qf_f Q) as Q2.
  unfold ci_no_authority. rewrite (nf_ue F), (nf_hs F), (nf_he F), (nf_port F), (nf_host F), !N.eqb_refl.
  cbn [chk hi_eqb opt_eqb]. rewrite (path_eval u W). cbn [bp].
  set (pe := pidx u AfterPath). set (ps := pidx u BeforePath).
  assert (Hps : ps = path_start u) by reflexivity.
  assert (Hpe : pe = match query_start u, fragment_start u with Some q, _ => q | None, Some f => f | None, None => nlen (ser u) end).
  { unfold pe, pidx. destruct (query_start u), (fragment_start u); reflexivity. }
  pose proof (nf_len F) as L.
  assert (Hle : ps <= pe /\ pe <= nlen (ser u)).
  { rewrite Hpe, Hps. destruct (query_start u) as [q|]; [lia|]. destruct (fragment_start u) as [f|]; lia. }
  destruct (nf_ps F) as [P|(P1 & P2 & P3 & P4)].
  - (* no marker: the path does not start with "//" (the text after ':' would start with "//") *)
    assert (starts_with s_ss (piece u ps pe) = false) as E.
    { destruct (starts_with s_ss (piece u ps pe)) eqn:E; [|reflexivity]. exfalso.
      apply starts_with_ss_2 in E. destruct E as [E0 E1]. unfold piece in E0, E1.
      assert (2 <= pe - ps).
      { assert (nlen (nfirstn (pe - ps) (nskipn ps (ser u))) <= pe - ps) by apply nlen_nfirstn_le.
        destruct (nfirstn (pe - ps) (nskipn ps (ser u))) as [|a [|b r]]; try discriminate. rewrite !nlen_cons in H. lia. }
      rewrite nnth_nfirstn in E0, E1 by lia. rewrite nnth_nskipn in E0, E1.
      unfold has_authority_b in HA. rewrite (nskipn_cons_of_nnth _ _ _ (byte_eqb_nnth _ _ _ S2)) in HA.
      rewrite Hps, P in E0, E1. rewrite N.add_0_r in E0.
      rewrite (nskipn_cons_of_nnth _ _ _ E0) in HA. replace (scheme_end u + 1 + 1) with (scheme_end u + 1 + 1) in HA by lia.
      rewrite (nskipn_cons_of_nnth _ _ _ E1) in HA. cbn in HA. discriminate. }
    rewrite E. rewrite P, N.eqb_refl. reflexivity.
  - (* marker "/." in front of a path that starts with "//" *)
    apply starts_with_ss_2 in P4. destruct P4 as [E0 E1]. rewrite nnth_nskipn in E0, E1. rewrite N.add_0_r in E0.
    assert (ps + 2 <= pe) as Hge.
    { rewrite Hpe, Hps. destruct (query_start u) as [q|].
      - destruct Q1 as (A & B & C). apply byte_eqb_nnth in B.
        assert (q <> path_start u) by (intros ->; congruence). assert (q <> path_start u + 1) by (intros ->; congruence). lia.
      - destruct (fragment_start u) as [f|].
        + destruct Q2 as (A & B & C). apply byte_eqb_nnth in B.
          assert (f <> path_start u) by (intros ->; congruence). assert (f <> path_start u + 1) by (intros ->; congruence). lia.
        + destruct (nnth (ser u) (path_start u + 1)) eqn:E; [|discriminate]. unfold nnth in E.
          assert (N.to_nat (path_start u + 1) < length (ser u))%nat by (apply nth_error_Some; congruence). unfold nlen. lia. }
    assert (starts_with s_ss (piece u ps pe) = true) as E.
    { apply starts_with_ss_of; unfold piece; rewrite nnth_nfirstn by lia; rewrite nnth_nskipn; rewrite Hps; [rewrite N.add_0_r|]; assumption. }
    rewrite E. unfold byte_at. rewrite (byte_eqb_nnth _ _ _ P2), (byte_eqb_nnth _ _ _ P3). cbn [bp chk].
    rewrite !N.eqb_refl. cbn [chk]. rewrite P1, N.eqb_refl. reflexivity.
Qed.

Theorem ci_struct_eval k : ci_struct hd u k = if has_authority_b u && negb (ip_text_ok hd u) then CErr else k.
Proof.
  unfold ci_struct. rewrite ci_scheme_eval. destruct rest_eval as [E1 E2]. rewrite E1. cbn [bp]. rewrite E2.
  destruct (has_authority_b u) eqn:HA.
  - rewrite (ci_userinfo_eval HA), (ci_host_eval HA). cbn [andb]. destruct (ip_text_ok hd u); [|reflexivity].
    rewrite (ci_port_eval HA), (ci_path_start_eval HA), ci_query_fragment_eval. reflexivity.
  - cbn [andb]. rewrite (ci_no_authority_eval _ HA), ci_query_fragment_eval. reflexivity.
Qed.

Lemma ci_reparse_fix : ci_reparse u (POk u) = COk.
Proof.
  unfold ci_reparse. rewrite (proj2 (list_eqb_spec _ _) eq_refl), !N.eqb_refl, hi_eqb_refl, !opt_eqb_refl. reflexivity.
Qed.
End Eval.

(* ================================================================ the theorems *)
Lemma chk_np c k : k <> CPanic -> chk c k <> CPanic.
Proof. intros H. unfold chk. destruct c; [exact H | discriminate]. Qed.

Lemma ci_reparse_np u o : wf_b u = true -> wf_b o = true -> ci_reparse u (POk o) <> CPanic.
Proof.
  intros Wu Wo. unfold ci_reparse. repeat apply chk_np.
  assert (T : chk (opt_eqb (port u) (port o)) (chk (path_start u =? path_start o)
           (chk (opt_eqb (query_start u) (query_start o)) (chk (opt_eqb (fragment_start u) (fragment_start o)) COk))) <> CPanic)
    by (repeat apply chk_np; discriminate).
  destruct (hi_eqb (hosti u) (hosti o)); [exact T|].
  rewrite (host_str_eval u Wu), (host_str_eval o Wo). cbn [bp]. apply chk_np. exact T.
Qed.

Section Main.
Variable hd : host -> list N.

(* check_invariants on a well-formed record: it panics exactly when the structural part passes and the re-parse fails
   (Url::parse(..).expect("Failed to parse myself?")); `other` is any outcome whose Ok values are well-formed *)
Theorem check_invariants_panic_iff u other : wf_b u = true -> host_text_ok u ->
  (forall o, other = POk o -> wf_b o = true) ->
  (check_invariants hd u other = CPanic
   <-> (has_authority_b u && negb (ip_text_ok hd u) = false /\ forall o, other <> POk o)).
Proof.
  intros W HT Ho. unfold check_invariants. rewrite (ci_struct_eval hd u W HT).
  destruct (has_authority_b u && negb (ip_text_ok hd u)).
  - split; [discriminate | intros [H _]; discriminate].
  - split.
    + intros H. split; [reflexivity|]. intros o E. subst other. exact (ci_reparse_np u o W (Ho o eq_refl) H).
    + intros [_ H]. destruct other as [o| |]; [exfalso; exact (H o eq_refl) | reflexivity | reflexivity].
Qed.

Theorem check_invariants_no_panic u o : wf_b u = true -> host_text_ok u -> wf_b o = true ->
  check_invariants hd u (POk o) <> CPanic.
Proof.
  intros W HT Wo H. apply (check_invariants_panic_iff u (POk o) W HT) in H.
  - destruct H as [_ H]. exact (H o eq_refl).
  - intros o' E. inversion E; subst. exact Wo.
Qed.

(* a fixpoint of re-parsing whose IP host text is the Display text passes: Ok(()) *)
Theorem check_invariants_ok u : wf_b u = true -> host_text_ok u -> ip_text_ok hd u = true ->
  check_invariants hd u (POk u) = COk.
Proof.
  intros W HT HI. unfold check_invariants. rewrite (ci_struct_eval hd u W HT), HI, andb_false_r. apply ci_reparse_fix.
Qed.

(* without well-formedness the structural part itself panics: the empty serialization (byte_at(0)) *)
Lemma check_invariants_panics_outside_wf :
  check_invariants hd (mkUrl [] 1 1 1 1 HI_None None 1 None None) (PErr EmptyHost) = CPanic.
Proof. reflexivity. Qed.
End Main.
