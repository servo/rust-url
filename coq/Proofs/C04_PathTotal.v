(* Proofs/C04_PathTotal.v - what the totality of the path states (Proofs/C04_PathFile.v) is stated with: the
   invariant seg_inv ("the byte in front of the current segment is '/', and the segment does not start in front of
   the path"), the shape rem_ok of what the path state leaves unread, and ends_with_byte / rfind / pop_path in terms
   of nnth.  No UTF-8 / scalar-value hypothesis anywhere.  Totality twin of C06_PathParser.PInv (which says what a
   successful run keeps). *)
From RU Require Import Base.Prelude Base.Utf8 Model.AsciiSet Gen.Tables Model.PercentEncoding
  Model.HostT Model.UrlRecord Model.Parser
  Proofs.ListN Proofs.C06_List Proofs.C02_Parts.

(* ---------- ends_with_byte / rfind in terms of nnth ---------- *)
Lemma nnth_last a x : nnth (a ++ [x]) (nlen a) = Some x.
Proof. rewrite nnth_app_ge by lia. rewrite N.sub_diag. reflexivity. Qed.

Lemma ends_with_byte_snoc b a x : ends_with_byte b (a ++ [x]) = (x =? b).
Proof. unfold ends_with_byte. rewrite rev_app_distr. reflexivity. Qed.

Lemma ends_with_byte_nnth b l : ends_with_byte b l = true <-> 1 <= nlen l /\ nnth l (nlen l - 1) = Some b.
Proof.
  destruct l as [|c r] using rev_ind.
  - split; [discriminate | intros [H _]; rewrite nlen_nil in H; lia].
  - rewrite ends_with_byte_snoc. rewrite nlen_app. change (nlen [c]) with 1.
    replace (nlen r + 1 - 1) with (nlen r) by lia. rewrite nnth_last. split.
    + intros H. apply N.eqb_eq in H. subst c. split; [lia | reflexivity].
    + intros [_ H]. inversion H. apply N.eqb_refl.
Qed.

Lemma rfind_aux_spec b l : forall i0 last j, rfind_aux b l i0 last = Some j ->
  last = Some j \/ (i0 <= j /\ nnth l (j - i0) = Some b).
Proof.
  induction l as [|x r IH]; intros i0 last j H; cbn [rfind_aux] in H.
  - left. exact H.
  - apply IH in H. destruct H as [H|[H1 H2]].
    + destruct (x =? b) eqn:E; [|left; exact H]. inversion H; subst. right. split; [lia|].
      rewrite N.sub_diag. apply N.eqb_eq in E. subst x. reflexivity.
    + right. split; [lia|]. replace (j - i0) with (1 + (j - (i0 + 1))) by lia.
      change (x :: r) with ([x] ++ r). rewrite nnth_app_ge by (change (nlen [x]) with 1; lia).
      change (nlen [x]) with 1. replace (1 + (j - (i0 + 1)) - 1) with (j - (i0 + 1)) by lia. exact H2.
Qed.

Lemma rfind_spec b l j : rfind b l = Some j -> nnth l j = Some b.
Proof.
  intros H. apply rfind_aux_spec in H. destruct H as [H|[_ H]]; [discriminate|].
  rewrite N.sub_0_r in H. exact H.
Qed.

Lemma rfind_aux_some b l : forall i0 last i, nnth l i = Some b -> rfind_aux b l i0 last <> None.
Proof.
  assert (forall l i0 last, last <> None -> rfind_aux b l i0 last <> None) as Hk.
  { induction l0 as [|x r IH]; intros i0 last H; cbn [rfind_aux]; [exact H|].
    apply IH. destruct (x =? b); [discriminate | exact H]. }
  induction l as [|x r IH]; intros i0 last i H.
  - unfold nnth in H. destruct (N.to_nat i); discriminate.
  - cbn [rfind_aux]. destruct (N.eq_dec i 0) as [->|Hi].
    + cbn in H. inversion H; subst. rewrite N.eqb_refl. apply Hk. discriminate.
    + apply (IH _ _ (i - 1)). change (x :: r) with ([x] ++ r) in H.
      rewrite nnth_app_ge in H by (change (nlen [x]) with 1; lia). exact H.
Qed.

Lemma rfind_some b l i : nnth l i = Some b -> exists j, rfind b l = Some j.
Proof.
  intros H. pose proof (rfind_aux_some b l 0 None i H) as K. unfold rfind.
  destruct (rfind_aux b l 0 None) as [j|]; [exists j; reflexivity | congruence].
Qed.

Lemma rfind_lt' b l p : rfind b l = Some p -> p < nlen l.
Proof. intros H. apply rfind_spec in H. apply nnth_lt in H. exact H. Qed.

Lemma nlen_nfirstn_min n l : nlen (nfirstn n l) = N.min n (nlen l).
Proof.
  destruct (N.le_gt_cases n (nlen l)) as [H|H].
  - rewrite nlen_nfirstn by exact H. lia.
  - rewrite nfirstn_all by lia. lia.
Qed.

Lemma agree_pre_nfirstn_ge k n s : k <= n -> agree_pre k s (nfirstn n s).
Proof. intros H. unfold agree_pre. apply nfirstn_nfirstn. exact H. Qed.

Lemma agree_pre_app_le k s x : k <= nlen s -> agree_pre k s (s ++ x).
Proof. intros H. unfold agree_pre. apply nfirstn_app_le. exact H. Qed.

(* what is left to parse after the path: nothing, or something whose first character is '?' / '#' *)
Definition rem_ok (rem : list N) : Prop :=
  match inp_next rem with None => True | Some (c, _) => is_qh c = true end.

Section PathTotal.
Variables (st : scheme_type) (ps k : N).

(* the segment starts at ss, behind a '/', not in front of the path; the first k bytes are never touched *)
Definition seg_inv (ser : list N) (ss : N) : Prop :=
  ps <= ss /\ k <= ss /\ 1 <= ss /\ ss <= nlen ser /\ nnth ser (ss - 1) = Some 47.

Lemma seg_inv_app ser ss x : seg_inv ser ss -> seg_inv (ser ++ x) ss.
Proof.
  intros (H1 & H2 & H3 & H4 & H5). repeat split; try assumption.
  - rewrite nlen_app. lia.
  - rewrite nnth_app_lt by lia. exact H5.
Qed.

Lemma seg_inv_trunc ser n : ps <= n -> k <= n -> 1 <= n -> n <= nlen ser -> nnth ser (n - 1) = Some 47 ->
  seg_inv (nfirstn n ser) (nlen (nfirstn n ser)) /\ ends_with_byte 47 (nfirstn n ser) = true.
Proof.
  intros H1 H2 H3 H4 H5. pose proof (nlen_nfirstn n ser H4) as L.
  assert (nnth (nfirstn n ser) (n - 1) = Some 47) as H6 by (rewrite nnth_nfirstn by lia; exact H5).
  split.
  - rewrite L. repeat split; try assumption; lia.
  - apply ends_with_byte_nnth. rewrite L. split; assumption.
Qed.

Lemma seg_inv_snoc a : ps <= nlen a + 1 -> k <= nlen a + 1 -> seg_inv (a ++ [47]) (nlen (a ++ [47])).
Proof.
  intros H1 H2. unfold seg_inv. rewrite nlen_app. change (nlen [47]) with 1.
  repeat split; try lia. replace (nlen a + 1 - 1) with (nlen a) by lia. apply nnth_last.
Qed.

Lemma pop_path_ok s i : st_is_file st = false -> ps <= i -> nnth s i = Some 47 ->
  exists n, pop_path st ps s = POk (nfirstn n s) /\ ps + 1 <= n /\ n <= nlen s /\ nnth s (n - 1) = Some 47.
Proof.
  intros Hnf Hi Hn. pose proof (nnth_lt _ _ _ Hn) as Hlt. unfold pop_path.
  replace (ps <? nlen s) with true by lia.
  assert (nnth (nskipn ps s) (i - ps) = Some 47) as Hn' by (rewrite nnth_nskipn; replace (ps + (i - ps)) with i by lia; exact Hn).
  destruct (rfind_some 47 _ _ Hn') as [sp Hsp]. rewrite Hsp.
  pose proof (rfind_spec _ _ _ Hsp) as Hs. rewrite nnth_nskipn in Hs.
  pose proof (nnth_lt _ _ _ Hs) as Hl.
  rewrite Hnf. cbn [andb]. exists (ps + sp + 1). unfold truncate. split; [reflexivity|].
  split; [lia|]. split; [lia|]. replace (ps + sp + 1 - 1) with (ps + sp) by lia. exact Hs.
Qed.

Lemma push_pending_app ctx pend ser : exists x, push_pending ctx st ser pend = ser ++ x.
Proof.
  unfold push_pending. destruct pend as [|c r]; [exists []; rewrite app_nil_r; reflexivity|].
  unfold push_encoded. eexists. reflexivity.
Qed.

Lemma rem_ok_nil : rem_ok [].
Proof. exact I. Qed.

Lemma rem_ok_cons c r : is_tnl c = false -> is_qh c = true -> rem_ok (c :: r).
Proof. intros Ht Hq. unfold rem_ok. rewrite inp_next_cons by exact Ht. exact Hq. Qed.
End PathTotal.

(* ---------- the path state entered with an empty segment and nothing (or a separator) to read ---------- *)
Lemma loop_ctx_drop_tnl dbg ctx st ps l ser ss hh :
  parse_path_loop dbg ctx st ps l ser ss [] hh = parse_path_loop dbg ctx st ps (drop_while is_tnl l) ser ss [] hh.
Proof.
  induction l as [|c r IH]; [reflexivity|]. cbn [drop_while]. destruct (is_tnl c) eqn:E; [|reflexivity].
  cbn [parse_path_loop]. rewrite E. cbn [push_pending]. exact IH.
Qed.

Lemma finish_empty_any dbg st ps (ser : list N) (ews : bool) hh :
  finish_segment dbg st ps (if ews then ser ++ [47] else ser) (nlen ser) ews hh
  = POk (if ews then ser ++ [47] else ser, hh).
Proof.
  unfold finish_segment.
  assert ((if ews then nlen (if ews then ser ++ [47] else ser) - 1 else nlen (if ews then ser ++ [47] else ser)) = nlen ser) as E.
  { destruct ews; [rewrite nlen_app; change (nlen [47]) with 1; lia | reflexivity]. }
  rewrite E. rewrite slice_o_some by (destruct ews; rewrite ?nlen_app; lia). rewrite N.sub_diag.
  cbn [of_option pbind nfirstn N.to_nat firstn is_double_dot is_single_dot].
  replace (is_wdl []) with false by reflexivity. rewrite andb_false_r. reflexivity.
Qed.
