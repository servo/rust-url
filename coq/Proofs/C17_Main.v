(* Proofs/C17_Main.v - the statement of C17 (C17_statement) and of its MIME clause
   (C17_mime_statement), totality of process_and_decode, the refutations inside Known_C17, and the
   base64 clause that follows from C18. *)
From RU Require Import Base.Prelude Base.Utf8Facts
  Model.HostT Model.UrlRecord Model.Parser Model.Mime Model.DataUrl Model.DataUrlTie Model.KnownC17
  Spec.Infra Spec.MimeSniff Spec.Fetch
  Proofs.C18_BodyRef Proofs.C17_Total Proofs.C17_Decode.

(* C17: for a data: URL outside Known_C17, the crate's DataUrl::process + decode_to_vec yields what
   Fetch's data: URL processor yields on the parsed URL.  Proved as C17_Final.c17_statement_holds
   (Properties/C17.v: Theorem C17). *)
Definition C17_statement : Prop :=
  forall (dbg : bool) (hp ho : list N -> result host) (hd : host -> list N) (s : list N) (u : url),
    usv_list s ->
    parse_url dbg hp ho hd None None s = POk u -> url_is_data u = true ->
    ~ Known_C17 s ->
    fetch_view (process_and_decode s) = fetch_of_url u.

Theorem process_and_decode_total s : usv_list s ->
  (exists r, DataUrl.process s = Ok r)
  /\ (forall site, process_and_decode s <> PdPanic site) /\ process_and_decode s <> PdOutOfFuel.
Proof.
  intros Hs. destruct (process_total s Hs) as [r Hr]. split; [exists r; exact Hr|].
  unfold process_and_decode, process_and_decode_bytes. unfold DataUrl.process in Hr. rewrite Hr.
  destruct r as [u|[|]]; try (split; [intros site|]; discriminate).
  pose proof (decode_to_vec_no_panic u) as Hn.
  destruct (DataUrl.decode_to_vec u); try (split; [intros site|]; discriminate). congruence.
Qed.

(* Refutations inside Known_C17: one witness per finding F-C17-1..4 (the lemma kN_refuted is numbered
   by the finding; the first argument of refuted_by is the class known_c17 returns, 1..3).  The toy
   host functions are never consulted for these inputs. *)
Definition toy_hp (l : list N) : result host := Err EmptyHost.
Definition toy_hd (h : host) : list N := [].

Definition refuted_by (k : N) (s : list N) : Prop :=
  exists u, usv_list s /\ parse_url true toy_hp toy_hp toy_hd None None s = POk u /\ url_is_data u = true
            /\ known_c17 s = k /\ fetch_view (process_and_decode s) <> fetch_of_url u.

Lemma usv_list_b l : forallb is_usvb l = true -> usv_list l.
Proof.
  induction l as [|c l IH]; cbn [forallb]; intros H; [constructor|].
  apply andb_true_iff in H. destruct H as [H1 H2]. constructor; [apply is_usvb_spec; exact H1|exact (IH H2)].
Qed.

(* F-C17-1  data:/,<U+00E9>%2Ca=2/..#  : the URL is data:/# (no comma: Fetch fails), the crate succeeds *)
Definition w1 : list N := [100;97;116;97;58;47;44;233;37;50;67;97;61;50;47;46;46;35].
Lemma k1_refuted : refuted_by 1 w1.
Proof.
  eexists. split; [apply usv_list_b; vm_compute; reflexivity|].
  split; [vm_compute; reflexivity|]. split; [vm_compute; reflexivity|]. split; [vm_compute; reflexivity|].
  vm_compute. intros Hneq. discriminate Hneq.
Qed.

(* F-C17-2  data:charset=x?/; base64,a=2 : Fetch sees "; %20base64" (no marker), body "a=2"; the crate fails *)
Definition w2 : list N := [100;97;116;97;58;99;104;97;114;115;101;116;61;120;63;47;59;32;98;97;115;101;54;52;44;97;61;50].
Lemma k2_refuted : refuted_by 2 w2.
Proof.
  eexists. split; [apply usv_list_b; vm_compute; reflexivity|].
  split; [vm_compute; reflexivity|]. split; [vm_compute; reflexivity|]. split; [vm_compute; reflexivity|].
  vm_compute. intros Hneq. discriminate Hneq.
Qed.

(* F-C17-3  data:a/b;x=y? ,X : the crate trims the space (x = y?), Fetch sees x = y?%20 *)
Definition w3 : list N := [100;97;116;97;58;97;47;98;59;120;61;121;63;32;44;88].
Lemma k3_refuted : refuted_by 2 w3.
Proof.
  eexists. split; [apply usv_list_b; vm_compute; reflexivity|].
  split; [vm_compute; reflexivity|]. split; [vm_compute; reflexivity|]. split; [vm_compute; reflexivity|].
  vm_compute. intros Hneq. discriminate Hneq.
Qed.

(* F-C17-4  data:,%2<TAB>0 : Fetch decodes %20, the crate keeps "%20" *)
Definition w4 : list N := [100;97;116;97;58;44;37;50;9;48].
Lemma k4_refuted : refuted_by 3 w4.
Proof.
  eexists. split; [apply usv_list_b; vm_compute; reflexivity|].
  split; [vm_compute; reflexivity|]. split; [vm_compute; reflexivity|]. split; [vm_compute; reflexivity|].
  vm_compute. intros Hneq. discriminate Hneq.
Qed.

(* base64: the body of a base64 data: URL is the Infra forgiving-base64 decode of what the same
   text yields without the flag; failure exactly when Infra fails *)
Theorem decode_base64_infra u :
  let plain := DataUrl.decode_to_vec (mk_data_url (du_mime_type u) false (du_encoded_body_plus_fragment u)) in
  exists out fragment, plain = DecOk out fragment /\
    (du_base64 u = false -> DataUrl.decode_to_vec u = DecOk out fragment) /\
    (du_base64 u = true ->
       match forgiving_base64_decode out with
       | Some v => DataUrl.decode_to_vec u = DecOk v fragment
       | None => exists e, DataUrl.decode_to_vec u = DecInvalidBase64 e
       end).
Proof.
  cbv zeta. rewrite !decode_to_vec_ref. cbn [du_base64 du_encoded_body_plus_fragment].
  unfold decoded_ref.
  destruct (body_ref (du_encoded_body_plus_fragment u)) as [out f].
  exists out, f. split; [reflexivity|]. split; intros Hb; rewrite Hb; [reflexivity|].
  pose proof (Proofs.C18_Spec.decode_to_vec_is_infra out) as HI.
  destruct (Model.Base64.decode_to_vec out) as [v|e]; rewrite <- HI; [reflexivity|exists e; reflexivity].
Qed.

(* MIME: the fallback rule, and the text handed to the MIME parser is printable ASCII *)
Definition printable (c : N) : Prop := 32 <= c /\ c <= 126.

(* parse_header: the MIME type is what Mime::from_str makes of a printable-ASCII string, or
   text/plain;charset=US-ASCII when that fails *)
Theorem parse_header_mime h m b : bytes h -> parse_header h = Ok (m, b) ->
  exists t, bytes t /\ Forall printable (header_string t)
    /\ (Mime.parse (header_string t) = Ok (Some m)
        \/ (Mime.parse (header_string t) = Ok None /\ record_of_mime m = text_plain_us_ascii)).
Proof.
  intros Hb. unfold parse_header.
  set (trimmed := drop_while_end is_header_trim (drop_while is_header_trim h)).
  assert (Ht : bytes trimmed) by (apply bytes_drop_while_end, bytes_drop_while; exact Hb).
  destruct (remove_base64_suffix_total trimmed) as [w Hw]. rewrite Hw. cbn [bind].
  set (t := match w with Some t => t | None => trimmed end).
  assert (Hm : bytes t) by (subst t; destruct w as [t'|]; [exact (remove_base64_suffix_bytes _ _ Ht Hw)|exact Ht]).
  unfold from_str. destruct (Mime.parse (header_string t)) as [[m'|]| |] eqn:Ep; cbn [bind]; try discriminate.
  - intros H. inversion H; subst. exists t. split; [exact Hm|]. split; [apply header_string_printable; exact Hm|].
    left. exact Ep.
  - intros H. inversion H; subst. exists t. split; [exact Hm|]. split; [apply header_string_printable; exact Hm|].
    right. split; [exact Ep|reflexivity].
Qed.

(* The MIME clause of C17: on printable ASCII the crate's MIME parser is the MIME Sniffing Standard's
   (F-C19-2 needs a code point outside 0x20..0x7E, so it cannot be reached from a data: URL header).
   Proved as C17_Partial.mime_statement_holds (Properties/C17.v: C17_mime). *)
Definition C17_mime_statement : Prop :=
  forall t, Forall printable t ->
    Mime.parse t = Ok (option_map (fun r => mk_mime (mt_type r) (mt_subtype r) (mt_parameters r)) (parse_a_mime_type t)).
