(* Proofs/C08_Input.v - the reference as the parser sees it: the skipping iterator of Input versus the
   text with tab / LF / CR removed (KnownC08.ref_text); when the scheme state fails; the slash count. *)
From RU Require Import Base.Prelude Model.HostT Model.UrlRecord Model.Parser Model.KnownC08
  Proofs.C02_Parts Proofs.C06_FragQuery.

Definition ntnl (l : list N) : list N := filter (fun c => negb (is_tnl c)) l.

Lemma ref_text_eq input : ref_text input = ntnl (input_new_trim_c0 input).
Proof. reflexivity. Qed.

Lemma ntnl_cons_tnl c r : is_tnl c = true -> ntnl (c :: r) = ntnl r.
Proof. intros H. unfold ntnl. cbn [filter]. rewrite H. reflexivity. Qed.

Lemma ntnl_cons c r : is_tnl c = false -> ntnl (c :: r) = c :: ntnl r.
Proof. intros H. unfold ntnl. cbn [filter]. rewrite H. reflexivity. Qed.

Lemma ntnl_not_tnl l : ntnl l = filter not_tnl l.
Proof. reflexivity. Qed.

(* inp_next in terms of the stripped text *)
Lemma inp_next_none l : ntnl l = [] -> inp_next l = None.
Proof.
  induction l as [|c r IH]; intros H; [reflexivity|].
  destruct (is_tnl c) eqn:E.
  - rewrite inp_next_tnl by exact E. apply IH. rewrite ntnl_cons_tnl in H by exact E. exact H.
  - rewrite ntnl_cons in H by exact E. discriminate.
Qed.

Lemma inp_next_some l c t : ntnl l = c :: t ->
  exists r, inp_next l = Some (c, r) /\ ntnl r = t /\ is_tnl c = false.
Proof.
  induction l as [|x r IH]; intros H; [discriminate|].
  destruct (is_tnl x) eqn:E.
  - rewrite inp_next_tnl by exact E. apply IH. rewrite ntnl_cons_tnl in H by exact E. exact H.
  - rewrite ntnl_cons in H by exact E. inversion H; subst. exists r.
    rewrite inp_next_cons by exact E. repeat split. exact E.
Qed.

Lemma inp_next_ntnl l c r : inp_next l = Some (c, r) -> ntnl l = c :: ntnl r /\ is_tnl c = false.
Proof.
  induction l as [|x t IH]; intros H; [discriminate|].
  destruct (is_tnl x) eqn:E.
  - rewrite inp_next_tnl in H by exact E. rewrite ntnl_cons_tnl by exact E. exact (IH H).
  - rewrite inp_next_cons in H by exact E. inversion H; subst. rewrite ntnl_cons by exact E. split; [reflexivity | exact E].
Qed.

Lemma inp_next_none_ntnl l : inp_next l = None -> ntnl l = [].
Proof.
  induction l as [|x t IH]; intros H; [reflexivity|].
  destruct (is_tnl x) eqn:E.
  - rewrite inp_next_tnl in H by exact E. rewrite ntnl_cons_tnl by exact E. exact (IH H).
  - rewrite inp_next_cons in H by exact E. discriminate.
Qed.

Lemma inp_is_empty_ntnl l : inp_is_empty l = match ntnl l with [] => true | _ => false end.
Proof.
  unfold inp_is_empty. destruct (inp_next l) as [[c r]|] eqn:E.
  - destruct (inp_next_ntnl l c r E) as [-> _]. reflexivity.
  - rewrite (inp_next_none_ntnl l E). reflexivity.
Qed.

(* the scheme state *)
Lemma parse_scheme_first_not_alpha l :
  match ntnl l with c :: _ => is_alpha c = false | [] => True end -> parse_scheme CUrlParser l = None.
Proof.
  intros H. unfold parse_scheme, inp_starts_with_pred.
  destruct (ntnl l) as [|c t] eqn:E.
  - rewrite (inp_next_none l E). reflexivity.
  - destruct (inp_next_some l c t E) as (r & -> & _ & _). rewrite H. reflexivity.
Qed.

(* the loop fails when the stripped text has no  (alnum|+|-|.)* ':'  prefix *)
Lemma parse_scheme_loop_fails l : forall acc, scheme_tail_b (ntnl l) = false ->
  parse_scheme_loop CUrlParser acc l = None.
Proof.
  induction l as [|c r IH]; intros acc H; [reflexivity|]. cbn [parse_scheme_loop].
  destruct (is_tnl c) eqn:Et.
  - apply IH. rewrite ntnl_cons_tnl in H by exact Et. exact H.
  - rewrite ntnl_cons in H by exact Et. cbn [scheme_tail_b] in H.
    destruct (is_lower c || is_digit c || (c =? 43) || (c =? 45) || (c =? 46)) eqn:E1.
    + apply IH. replace (is_alnum c || (c =? 43) || (c =? 45) || (c =? 46)) with true in H; [exact H|].
      unfold is_alnum, is_alpha in *. symmetry. destruct (is_lower c), (is_digit c), (is_upper c), (c =? 43), (c =? 45), (c =? 46); cbn in *; try reflexivity; discriminate.
    + destruct (is_upper c) eqn:E2.
      * apply IH. replace (is_alnum c || (c =? 43) || (c =? 45) || (c =? 46)) with true in H; [exact H|].
        unfold is_alnum, is_alpha. rewrite E2. reflexivity.
      * replace (is_alnum c || (c =? 43) || (c =? 45) || (c =? 46)) with false in H.
        -- rewrite H. reflexivity.
        -- unfold is_alnum, is_alpha. rewrite E2. symmetry.
           destruct (is_lower c), (is_digit c), (c =? 43), (c =? 45), (c =? 46); cbn in *; try reflexivity; discriminate.
Qed.

Theorem parse_scheme_none l : has_scheme_b (ntnl l) = false -> parse_scheme CUrlParser l = None.
Proof.
  intros H. unfold has_scheme_b in H. destruct (ntnl l) as [|c t] eqn:E.
  - apply parse_scheme_first_not_alpha. rewrite E. exact I.
  - destruct (is_alpha c) eqn:Ea.
    + cbn [andb] in H. unfold parse_scheme. destruct (inp_starts_with_pred is_alpha l); [|reflexivity].
      apply parse_scheme_loop_fails. rewrite E. exact H.
    + apply parse_scheme_first_not_alpha. rewrite E. exact Ea.
Qed.

(* the slash count *)
Fixpoint count_leading (f : N -> bool) (l : list N) : N :=
  match l with
  | c :: r => if f c then 1 + count_leading f r else 0
  | [] => 0
  end.

Lemma inp_count_matching_fst f l : fst (inp_count_matching f l) = count_leading f (ntnl l).
Proof.
  induction l as [|c r IH]; [reflexivity|]. cbn [inp_count_matching].
  destruct (is_tnl c) eqn:Et.
  - rewrite ntnl_cons_tnl by exact Et. rewrite <- IH.
    destruct (inp_count_matching f r) as [n rem]. destruct n; reflexivity.
  - rewrite ntnl_cons by exact Et. cbn [count_leading]. destruct (f c).
    + rewrite <- IH. destruct (inp_count_matching f r) as [n rem]. cbn [fst]. lia.
    + reflexivity.
Qed.

Lemma count_leading_lt2 sp t : two_leading_slashes sp t = false ->
  count_leading (fun d => (d =? 47) || ((d =? 92) && sp)) t < 2.
Proof.
  unfold two_leading_slashes, is_ref_slash. destruct t as [|a [|b r]]; cbn [count_leading]; intros H.
  - lia.
  - destruct ((a =? 47) || (a =? 92) && sp); lia.
  - destruct ((a =? 47) || (a =? 92) && sp); [|lia]. cbn [andb] in H. rewrite H. lia.
Qed.

(* usv_list is inherited by what the iterator leaves *)
Lemma usv_trim input : usv_list input -> usv_list (input_new_trim_c0 input).
Proof. apply trim_matches_usv. Qed.
