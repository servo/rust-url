(* Proofs/C05_Comp.v - the per-component delimiter clauses on the STORED slices of a Url record.
   For rust-url before commit 0cfc9d8 the clauses are FALSE for reachable Urls (finding F-C06-6):
   Url::set_path on an opaque-path URL escaped only a '/' in the very first position of its argument,
   TAB / LF / CR were dropped later, and the rest went through the opaque-path state whose encode set
   (CONTROLS) keeps space, dquote, '<', '>', backtick, '{', '}':
        Url::parse("a:b").set_path("\t/ y")  =  "a:/ y"   - a hierarchical path with a raw space.
   Since commit 0cfc9d8 the '/' test is made on the TAB / LF / CR-free input; Model/Setters.v follows it,
   and cw_fixed is the regression lemma for the witness: the same call gives "a:%2F y", still an opaque path.
   comp_ok: the clauses in the form that is an invariant of the setters (Proofs/C05_CompSteps.v). *)
From RU Require Import Base.Prelude Base.Utf8 Model.AsciiSet Gen.Tables Model.PercentEncoding
  Model.HostT Model.UrlRecord Model.Parser Model.Setters Model.WF
  Proofs.ListN Proofs.C05_Enc Proofs.C05_Parser Proofs.C05_Setters Proofs.C05_History Proofs.C05_Sharp.

Definition free (D : list N) (l : list N) : Prop := forall d, In d D -> ~ In d l.

Lemma free_nil D : free D [].
Proof. intros d _ H. exact H. Qed.

Lemma free_app D a b : free D a -> free D b -> free D (a ++ b).
Proof. intros Ha Hb d Hd H. apply in_app_or in H. destruct H; [eapply Ha | eapply Hb]; eassumption. Qed.

Lemma free_incl D a b : incl a b -> free D b -> free D a.
Proof. intros Hi Hb d Hd H. exact (Hb d Hd (Hi d H)). Qed.

Lemma comp_clean_free D l : comp_clean D l -> free D l.
Proof. intros [_ H]. exact H. Qed.

(* the five clauses of the property text, for one record *)
Definition components_clean (dbg : bool) (u : url) : Prop :=
  (forall un, username dbg u = Some un -> free D_USERINFO un)
  /\ (forall pw, password dbg u = Some (Some pw) -> free D_USERINFO pw)
  /\ (cannot_be_a_base u = Some false -> forall p, path u = Some p -> free D_PATH p)
  /\ (forall q, query dbg u = Some (Some q) -> free D_QUERY q)
  /\ (forall f, fragment dbg u = Some (Some f) -> free D_FRAGMENT f).

(* the witness history of F-C06-6, on the model of rust-url since commit 0cfc9d8 *)
(* host functions that accept nothing (the witness never reaches them) *)
Definition no_hp (s : list N) : result host := Err IdnaError.
Definition no_hd (h : host) : list N := [].

Lemma no_host_ok : HostOK no_hp no_hp no_hd /\ IpOK no_hd.
Proof. split; intros h _; constructor. Qed.

(* "a:b" *)
Definition cw_start : url := mkUrl [97; 58; 98] 1 2 2 2 HI_None None 2 None None.
(* "a:%2F y" : still cannot-be-a-base *)
Definition cw_end : url := mkUrl [97; 58; 37; 50; 70; 32; 121] 1 2 2 2 HI_None None 2 None None.

Lemma cw_reachable dbg : Reachable dbg no_hp no_hp no_hd cw_end.
Proof.
  apply (R_step dbg no_hp no_hp no_hd cw_start (OSetPath [9; 47; 32; 121]) cw_end).
  - apply (R_parse dbg no_hp no_hp no_hd None [97; 58; 98]). destruct dbg; vm_compute; reflexivity.
  - exact I.
  - destruct dbg; vm_compute; reflexivity.
Qed.

Lemma cw_fixed : wf_b cw_start = true /\ wf_b cw_end = true
  /\ cannot_be_a_base cw_start = Some true /\ cannot_be_a_base cw_end = Some true
  /\ path cw_end = Some [37; 50; 70; 32; 121] /\ sharp cw_end.
Proof.
  repeat split; try (vm_compute; reflexivity). right.
  split; [|split; [|split]]; try (vm_compute; reflexivity);
    repeat constructor; unfold ok_or_space, ok_byte; lia.
Qed.
