(* Proofs/C07_Histories.v - from one assignment to any sequence of assignments.
   If a relation R between model records and URL records of the Standard is preserved by every covered
   assignment outside Known_C07 (the model does not panic, the specification model does not run out
   of fuel, and the results are related again), then it is preserved along every history of covered
   assignments all of whose steps - taken in the state the model has reached - are outside Known_C07
   (covered_run); if moreover related records show the same ten API strings, the API strings agree
   after every prefix (histories_api for a relation that every assignment preserves; usv_histories,
   usv_api for the one-step theorems of the C07 equivalence, which cover some of the setters, on values
   that are scalar-value strings). *)
From RU Require Import Base.Prelude Base.Utf8 Model.AsciiSet Gen.Tables Model.PercentEncoding
  Model.HostT Model.UrlRecord Model.Parser Model.Setters Model.KnownC01 Model.KnownC07 Spec.Whatwg
  Proofs.C07_Defs.

(* any transition system: the steps of a run are taken outside a set of excluded steps *)
Section Generic.
Variables MU OP : Type.
Variable mstep : OP -> MU -> option MU.
Variable excluded : MU -> OP -> Prop.

Fixpoint g_outside (u : MU) (ops : list OP) : Prop :=
  match ops with
  | [] => True
  | o :: r => ~ excluded u o /\ match mstep o u with Some u' => g_outside u' r | None => True end
  end.

Lemma g_outside_firstn n : forall ops u, g_outside u ops -> g_outside u (firstn n ops).
Proof.
  induction n as [|n IH]; intros ops u H; [exact I|].
  destruct ops as [|o r]; [exact I|]. cbn [firstn g_outside] in *. destruct H as [Hk Hr].
  split; [exact Hk|]. destruct (mstep o u) as [u'|]; [apply IH; exact Hr|exact I].
Qed.
End Generic.

Section Concrete.
Variable dbg : bool.
Variable hp ho : list N -> result host.
Variable hd : host -> list N.
Variable shp : bool -> list N -> option spec_host.
Variable shs : spec_host -> list N.
Variable R : url -> spec_url -> Prop.

Definition one_step : Prop :=
  forall u su s v, R u su -> known_c07 u s v = 0 ->
    exists u' su', model_set dbg hp ho hd s u v = Some u' /\ spec_step shp s su v = Some su' /\ R u' su'.

Lemma outside_known_firstn n : forall ops u, outside_known dbg hp ho hd u ops -> outside_known dbg hp ho hd u (firstn n ops).
Proof.
  induction n as [|n IH]; intros ops u H; [exact I|]. destruct ops as [|[s v] r]; [exact I|].
  cbn [firstn outside_known] in *. destruct H as [Hk Hr]. split; [exact Hk|].
  destruct (model_set dbg hp ho hd s u v); [apply IH; exact Hr | exact I].
Qed.

(* A one-step theorem usually covers some of the assignments only (`ok`: six of the ten setters, an href value
   that fits, ...); `oks` says that a history consists of covered assignments.  Every prefix of such a history
   all of whose steps are outside Known_C07 runs on both sides and ends in related records. *)
Section Covered.
Variable ok : qsetter -> list N -> Prop.
Variable oks : list (qsetter * list N) -> Prop.
Hypothesis oks_cons : forall s v r, oks ((s, v) :: r) -> ok s v /\ oks r.
Hypothesis step : forall u su s v, R u su -> ok s v -> known_c07 u s v = 0 ->
  exists u' su', model_set dbg hp ho hd s u v = Some u' /\ spec_step shp s su v = Some su' /\ R u' su'.

Theorem covered_run n : forall ops u su, R u su -> oks ops -> outside_known dbg hp ho hd u ops ->
  exists u' su', model_run dbg hp ho hd u (firstn n ops) = Some u' /\ spec_run shp su (firstn n ops) = Some su'
    /\ R u' su'.
Proof.
  induction n as [|n IH]; intros [|[s v] r] u su HR Hok Hout; try solve [exists u, su; cbn [firstn model_run spec_run]; auto].
  cbn [firstn model_run spec_run outside_known] in *. destruct Hout as [Hk Hr]. destruct (oks_cons s v r Hok) as [H1 H2].
  destruct (step u su s v HR H1 Hk) as (u1 & su1 & Em & Es & R1). rewrite Em in *. rewrite Es.
  exact (IH r u1 su1 R1 H2 Hr).
Qed.
End Covered.

Hypothesis Rapi : forall u su, R u su -> model_api dbg u = Some (spec_api_list shs su).

(* the ten API strings agree after every prefix of the history *)
Theorem histories_api : one_step ->
  forall ops u su, R u su -> outside_known dbg hp ho hd u ops ->
    forall n, exists u' su',
      model_run dbg hp ho hd u (firstn n ops) = Some u'
      /\ spec_run shp su (firstn n ops) = Some su'
      /\ model_api dbg u' = Some (spec_api_list shs su').
Proof.
  intros H1 ops u su HR Hout n.
  destruct (covered_run (fun _ _ => True) (fun _ => True) (fun _ _ _ _ => conj I I)
              (fun u su s v C _ => H1 u su s v C) n ops u su HR I Hout) as (u' & su' & A & B & C).
  exists u', su'. auto.
Qed.

(* the shape the one-step theorems of the C07 equivalence have: values are scalar-value strings *)
Section CoveredUsv.
Variable ok : qsetter -> list N -> Prop.
Variable oks : list (qsetter * list N) -> Prop.
Hypothesis oks_cons : forall s v r, oks ((s, v) :: r) -> ok s v /\ usv_list v /\ oks r.
Hypothesis step : forall u su s v, R u su -> ok s v -> usv_list v -> known_c07 u s v = 0 ->
  exists u' su', model_set dbg hp ho hd s u v = Some u' /\ spec_step shp s su v = Some su' /\ R u' su'.

Theorem usv_histories ops u su : R u su -> oks ops -> outside_known dbg hp ho hd u ops ->
  forall n, exists u' su',
    model_run dbg hp ho hd u (firstn n ops) = Some u'
    /\ spec_run shp su (firstn n ops) = Some su'
    /\ R u' su'
    /\ model_api dbg u' = Some (spec_api_list shs su').
Proof.
  intros HR Hok Hout n.
  destruct (covered_run (fun s v => ok s v /\ usv_list v) oks (fun s v r H => proj2 (and_assoc _ _ _) (oks_cons s v r H))
              (fun u su s v C H => step u su s v C (proj1 H) (proj2 H)) n ops u su HR Hok Hout) as (u' & su' & A & B & C).
  exists u', su'. auto.
Qed.

(* from a start whose Standard's counterpart su (the result of the Standard's parser: P) is related to it: the ten API
   strings agree at the start and after every prefix *)
Theorem usv_api (P : spec_url -> Prop) ops u : (exists su, P su /\ R u su) -> oks ops ->
  outside_known dbg hp ho hd u ops ->
  exists su, P su
    /\ model_api dbg u = Some (spec_api_list shs su)
    /\ forall n, exists u' su',
         model_run dbg hp ho hd u (firstn n ops) = Some u'
         /\ spec_run shp su (firstn n ops) = Some su'
         /\ model_api dbg u' = Some (spec_api_list shs su').
Proof.
  intros (su & HP & HR) Hok Hout. exists su. split; [exact HP|]. split; [exact (Rapi u su HR)|]. intros n.
  destruct (usv_histories ops u su HR Hok Hout n) as (u' & su' & A & B & _ & D). exists u', su'. auto.
Qed.
End CoveredUsv.

(* a parse clause in the shape of the class theorems: the model reports Overflow or the records are related *)
Lemma parsed_related (x : pres url) u su :
  x = PErr Overflow \/ (exists u0, x = POk u0 /\ R u0 su) -> x = POk u -> R u su.
Proof. intros [E|(u0 & E & C)] Ep; rewrite Ep in E; [discriminate E | injection E as <-; exact C]. Qed.

(* a one-step result, with the observation added *)
Lemma step_api s u su v :
  (exists u' su', model_set dbg hp ho hd s u v = Some u' /\ spec_step shp s su v = Some su' /\ R u' su') ->
  exists u' su', model_set dbg hp ho hd s u v = Some u' /\ spec_step shp s su v = Some su' /\ R u' su'
    /\ model_api dbg u' = Some (spec_api_list shs su').
Proof. intros (u' & su' & A & B & C). exists u', su'. auto. Qed.
End Concrete.
