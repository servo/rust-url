(* Proofs/C07_EqHostNoPort.v - the host setter on values WITHOUT a port part (the scan of the host state does not
   stop at a ':' outside brackets): there the Standard's host setter is its hostname setter (the run with the state
   override "host state" is the run with "hostname state", Proofs/C07_SpecHostPort.v spec_host_nocolon), url::quirks::set_host is
   url::quirks::set_hostname outside Known_C07 (q_set_host_nocolon: no new port is parsed, and the empty host is
   refused on the same records - class 7, F-C07-8, is exactly the case where set_host forgets the password), so
   the hostname equivalence of Proofs/C07_EqHostname.v carries over (host_portless_step).
   Host values with a port part (host state continuing into the port state): Proofs/C07_EqHostPort.v. *)
From RU Require Import Base.Prelude Base.Utf8 Base.Utf8Facts Model.AsciiSet Gen.Tables Model.PercentEncoding
  Model.HostT Model.UrlRecord Model.Parser Model.Setters Model.WF Model.KnownC01 Model.KnownC07 Spec.Whatwg Spec.WhatwgFuel
  Proofs.ListN Proofs.C03_WF Proofs.C06_List Proofs.C06_WFI Proofs.C06_Tail Proofs.C06_Suffix Proofs.C06_Front
  Proofs.C06_Steps Proofs.C06_FragQuery Proofs.C06_Port Proofs.C06_Host Proofs.C08_Input
  Proofs.C02_Enc Proofs.C01_Tables Proofs.C01_EqRun Proofs.C01_EqEnc Proofs.C01_EqApi Proofs.C01_EqAuthSpec
  Proofs.C07_Defs Proofs.C07_Setters Proofs.C07_Corr Proofs.C07_SpecRun Proofs.C07_EqCred Proofs.C07_EqPort
  Proofs.C07_SpecProto Proofs.C07_EqProto Proofs.C07_EqSix Proofs.C07_SpecHost Proofs.C07_EqHostLayout Proofs.C07_EqHostname
  Proofs.C07_EqSeven Proofs.C07_SpecHostPort.

(* the model's side *)
Lemma host_scan_rest_nocolon sp l : forall br acc,
  snd (hscan sp br (rev acc) (ntnl l)) = false ->
  inp_split_prefix_char 58 (snd (host_scan sp br acc l)) = None.
Proof.
  induction l as [|c r IH]; intros br acc H; [reflexivity|]. cbn [host_scan]. destruct (is_tnl c) eqn:Et.
  - rewrite ntnl_cons_tnl in H by exact Et. apply IH. exact H.
  - rewrite ntnl_cons in H by exact Et. cbn [hscan] in H.
    destruct ((c =? 58) && negb br) eqn:Ecol; cbn [orb]; [discriminate H|].
    assert (((c =? 92) && sp) || (c =? 47) || (c =? 63) || (c =? 35) = h_end sp c) as E
      by (unfold h_end; destruct (c =? 92), sp, (c =? 47), (c =? 63), (c =? 35); reflexivity).
    rewrite E. destruct (h_end sp c) eqn:Eh.
    + cbn [snd]. unfold inp_split_prefix_char, inp_next. cbn [drop_while]. rewrite Et.
      unfold h_end in Eh. destruct (c =? 58) eqn:E58; [|reflexivity].
      apply N.eqb_eq in E58. subst c. destruct sp; discriminate Eh.
    + unfold br_next in H. destruct (c =? 91); [apply IH; exact H|].
      destruct (c =? 93); apply IH; exact H.
Qed.

Section HostNoColon.
Variable dbg : bool.
Variable hp ho : list N -> result host.
Variable hd : host -> list N.
Variable shp : bool -> list N -> option spec_host.
Variable shs : spec_host -> list N.

Notation corr := (corr dbg shs).

Lemma hscan_empty_part sp t : snd (hscan sp false [] t) = false -> fst (hscan sp false [] t) = [] -> sp = false ->
  empty_host_part t = true.
Proof.
  intros H1 H2 ->. destruct t as [|c r]; [reflexivity|]. cbn [hscan] in *. cbn [empty_host_part].
  destruct ((c =? 58) && negb false); [discriminate H1|].
  unfold h_end in *. cbn [andb] in *. rewrite orb_false_r in *.
  destruct ((c =? 47) || (c =? 63) || (c =? 35)); [reflexivity|].
  exfalso. cbn [app] in H2.
  pose proof (host_scan_fst false (r) (br_next false c) [c]) as K. 
  assert (forall t br buf x, fst (hscan false br (x :: buf) t) <> []) as NE.
  { induction t as [|d t' IHt]; intros br0 buf x; cbn [hscan fst]; [discriminate|].
    destruct ((d =? 58) && negb br0); [discriminate|]. destruct (h_end false d); [discriminate|].
    cbn [app]. apply IHt. }
  exact (NE r _ [] c H2).
Qed.

Theorem q_set_host_nocolon u su v : host_fns_ok hp ho hd shp shs -> corr u su ->
  known_c07 u QHost v = 0 ->
  host_colon (no_tnl v) (st_is_special (scheme_type_of (su_scheme su))) = false ->
  option_map fst (q_set_host dbg hp ho hd u v) = option_map fst (q_set_hostname dbg hp ho hd u v).
Proof.
  intros HF C Hk E2. pose proof (co_wf _ _ _ _ C) as W.
  pose proof (cannot_be_a_base_eval u W) as Ecb.
  change (negb (byte_eqb (ser u) (scheme_end u + 1) 47)) with (is_opaque_b u) in Ecb.
  rewrite (co_opaque _ _ _ _ C) in Ecb.
  destruct (has_opaque_path su) eqn:Hop.
  { unfold q_set_host, q_set_hostname. rewrite Ecb. reflexivity. }
  unfold known_c07, u_cbb, u_scheme_or_empty, u_path_or_empty in Hk.
  rewrite Ecb, (co_scheme _ _ _ _ C), (co_path _ _ _ _ C), orb_false_r in Hk.
  destruct (list_eqb (su_scheme su) s_file) eqn:Ef; [discriminate Hk|].
  destruct (negb (has_host u) && starts_with s_ss (serialize_path su)) eqn:E3; [discriminate Hk|].
  pose proof (special_schemes_are_the_standards (su_scheme su)) as Esp. fold (is_special su) in Esp.
  rewrite Esp in Hk, E2.
  set (sp := is_special su) in *.
  pose proof (host_scan_fst sp v false []) as Hfst. cbn [rev] in Hfst.
  pose proof (hscan_colon sp (ntnl v) false []) as Hcol.
  unfold host_colon in E2. change (no_tnl v) with (ntnl v) in E2, Hk. rewrite E2 in Hcol.
  pose proof (host_scan_rest_nocolon sp v false [] Hcol) as Hrest.
  assert (st_is_file (scheme_type_of (su_scheme su)) = false) as Enf by (rewrite file_test_same; exact Ef).
  assert (scheme_type_eqb (scheme_type_of (su_scheme su)) STFile = false
          /\ scheme_type_eqb (scheme_type_of (su_scheme su)) STSpecialNotFile = sp) as [Enf' Esnf].
  { rewrite <- Esp. destruct (scheme_type_of (su_scheme su)); [discriminate Enf | split; reflexivity | split; reflexivity]. }
  unfold q_set_host, q_set_hostname. rewrite Ecb. cbn [bindo]. rewrite (co_scheme _ _ _ _ C). cbn [bindo].
  rewrite Enf'. cbn [andb]. unfold parse_host, input_new_no_trim. rewrite Enf, Esp, Esnf.
  destruct (host_scan sp false [] v) as [buf rem] eqn:Escan. cbn [fst snd] in Hfst, Hrest.
  replace (if negb sp then host <~ of_result (ho buf);; POk (host, rem) else host <~ of_result (hp buf);; POk (host, rem))
    with (host <~ of_result (if negb sp then ho buf else hp buf);; POk (host, rem)) by (destruct sp; reflexivity).
  destruct (sp && match buf with [] => true | _ => false end) eqn:Esn; [reflexivity|].
  assert (match (if negb sp then ho buf else hp buf), host_parsing shp (negb sp) buf with
          | Ok h, Some sh => hd h = shs sh /\ host_disp_ok hd h
                             /\ (h = HDomain [] <-> sh = SEmpty) /\ (h = HDomain [] <-> buf = [])
          | Err _, None => True
          | _, _ => False
          end) as K1.
  { destruct HF as [H0 H1]. destruct sp; [apply H0 | apply H1]. }
  destruct (if negb sp then ho buf else hp buf) as [hh|e] eqn:Eho; [|reflexivity].
  cbn [of_result pbind pres_ok bindo]. rewrite Hrest. cbn [bindo].
  rewrite (co_user _ _ _ _ C). cbn [bindo].
  destruct (host_parsing shp (negb sp) buf) as [sh|]; [|contradiction]. destruct K1 as (_ & _ & _ & Ks).
  destruct hh as [[|d0 dr]|a4|p6]; try reflexivity.
  (* the empty host *)
  assert (buf = []) as -> by (apply Ks; reflexivity).
  assert (sp = false) as Hsp by (destruct sp; [discriminate Esn | reflexivity]).
  rewrite Hsp in *. cbn [orb negb andb] in *.
  destruct (corr_cred_port_texts dbg shs u su C) as (po & un & pw & Epo & Eun & Epw & Erej).
  rewrite (co_user _ _ _ _ C) in Eun. injection Eun as <-.
  rewrite Epo, Epw. cbn [bindo].
  change (match po with [] => true | _ => false end) with (is_nil po).
  change (match pw with [] => true | _ => false end) with (is_nil pw).
  change (match su_username su with [] => true | _ => false end) with (is_nil (su_username su)).
  rewrite Erej. rewrite (co_port _ _ _ _ C).
  change (match su_port su with Some _ => true | None => false end) with (opt_is_some (su_port su)).
  rewrite orb_false_r.
  assert (negb (is_nil (su_username su)) || opt_is_some (su_port su)
          = includes_credentials su || opt_is_some (su_port su)) as ->; [|reflexivity].
  unfold includes_credentials. destruct (su_username su) as [|a ra] eqn:Eu; [|reflexivity].
  cbn [is_nil negb list_eqb orb].
  (* class 7 is excluded: no password without username *)
  destruct (starts_with_byte 58 (ntnl v)); [discriminate Hk|].
  rewrite (hscan_empty_part false (ntnl v) Hcol) in Hk by (try reflexivity; rewrite <- Hfst; reflexivity).
  cbn [andb] in Hk.
  destruct (u_password_only u) eqn:Epo7; [discriminate Hk|].
  unfold u_password_only in Epo7.
  assert (username false u = Some (su_username su)) as Eu0
    by (rewrite (username_eval false u W), <- (username_eval dbg u W); exact (co_user _ _ _ _ C)).
  assert (password false u = Some (pw_opt (su_password su))) as Ep0
    by (rewrite (password_piece false u W), <- (password_piece dbg u W); exact (co_pass _ _ _ _ C)).
  rewrite Eu0, Eu, Ep0 in Epo7.
  destruct (su_password su); [reflexivity | discriminate Epo7].
Qed.
End HostNoColon.

Section HostStep.
Variable dbg : bool.
Variable hp ho : list N -> result host.
Variable hd : host -> list N.
Variable shp : bool -> list N -> option spec_host.
Variable shs : spec_host -> list N.
Hypothesis HF : host_fns_ok hp ho hd shp shs.

(* the value has no port part: the scan of the host state does not stop at a ':' outside brackets *)
Definition host_value_portless (u : url) (v : list N) : bool :=
  negb (host_colon (no_tnl v) (st_is_special (scheme_type_of (u_scheme_or_empty u)))).

Theorem host_portless_step u su v : corrS dbg shs u su -> usv_list v -> known_c07 u QHost v = 0 ->
  host_value_portless u v = true ->
  exists u' su', model_set dbg hp ho hd QHost u v = Some u' /\ spec_step shp QHost su v = Some su'
    /\ corrS dbg shs u' su'.
Proof.
  intros CS Hv Hk Hpl. pose proof (proj1 CS) as C. pose proof (co_wf _ _ _ _ C) as W.
  unfold host_value_portless, u_scheme_or_empty in Hpl. rewrite (co_scheme _ _ _ _ C) in Hpl.
  apply negb_true_iff in Hpl.
  (* the hostname assignment with the same value is outside Known_C07 too *)
  assert (known_c07 u QHostname v = 0) as Hk'.
  { unfold known_c07 in Hk |- *. cbv zeta in Hk |- *. unfold u_scheme_or_empty in Hk |- *.
    rewrite (co_scheme _ _ _ _ C) in Hk |- *.
    destruct (u_cbb u); [reflexivity|].
    destruct (list_eqb (su_scheme su) s_file); [discriminate Hk|].
    rewrite orb_false_r in Hk |- *.
    destruct (negb (has_host u) && starts_with s_ss (u_path_or_empty u)); [discriminate Hk|].
    rewrite Hpl. reflexivity. }
  destruct (seven_step dbg hp ho hd shp shs HF u su QHostname v CS eq_refl Hv Hk') as (u' & su' & A & B & C').
  exists u', su'. split; [|split; [|exact C']].
  - cbn [model_set] in A |- *. rewrite (q_set_host_nocolon dbg hp ho hd shp shs u su v HF C Hk Hpl). exact A.
  - unfold spec_step in B |- *. cbn [setter_of_q] in B |- *.
    destruct (has_opaque_path su) eqn:Hop.
    { cbn [spec_set] in B |- *. rewrite Hop in B |- *. exact B. }
    rewrite spec_host_nocolon; [exact B | |].
    + pose proof (cannot_be_a_base_eval u W) as Ecb.
      change (negb (byte_eqb (ser u) (scheme_end u + 1) 47)) with (is_opaque_b u) in Ecb.
      rewrite (co_opaque _ _ _ _ C), Hop in Ecb.
      unfold known_c07, u_cbb, u_scheme_or_empty in Hk. rewrite Ecb, (co_scheme _ _ _ _ C) in Hk.
      destruct (list_eqb (su_scheme su) s_file) eqn:Ef; [discriminate Hk | exact Ef].
    + rewrite hscan_colon. unfold host_colon in Hpl.
      rewrite (special_schemes_are_the_standards (su_scheme su)) in Hpl. exact Hpl.
Qed.
End HostStep.

