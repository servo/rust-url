(* Proofs/C17_BodyUrl.v - for opaque-path data: URLs whose header has no '?': what the URL serializer writes
   between "data:" and the first comma is the C0-control encoding of the header without tab / newlines, and the
   body bytes of DataUrl::decode (before base64) are the Fetch processor's percent-decoding of what follows that
   comma - unless an ASCII tab / newline sits inside a percent escape of the body (F-C17-4). *)
From RU Require Import Base.Prelude Base.Utf8 Base.Utf8Facts Model.AsciiSet Gen.Tables Model.PercentEncoding
  Model.UrlRecord Model.Parser Model.Mime Model.DataUrl Model.DataUrlTie Model.KnownC17
  Spec.Fetch
  Proofs.ListN Proofs.C14_Enc Proofs.C02_Enc Proofs.C02_Parts Proofs.C02_Opaque
  Proofs.C18_BodyRef Proofs.C17_Total Proofs.C17_Bridge Proofs.C17_Fragment
  Proofs.C17_Body.

(* first occurrences of a byte in a list *)
Lemma split_first (c : N) (l : list N) : In c l -> exists a b, l = a ++ c :: b /\ ~ In c a.
Proof.
  induction l as [|x l IH]; [intros []|]. intros H.
  destruct (N.eq_dec x c) as [->|Hne].
  - exists [], l. split; [reflexivity|intros []].
  - destruct H as [H|H]; [congruence|]. destruct (IH H) as (a & b & E & Hn). exists (x :: a), b. split.
    + rewrite E. reflexivity.
    + intros [H1|H1]; [congruence|exact (Hn H1)].
Qed.

Lemma first_unique (c : N) : forall (x1 y1 x2 y2 : list N), x1 ++ c :: y1 = x2 ++ c :: y2 -> ~ In c x1 -> ~ In c x2 -> x1 = x2 /\ y1 = y2.
Proof.
  induction x1 as [|a x1 IH]; intros y1 x2 y2 E H1 H2.
  - destruct x2 as [|b x2]; [inversion E; split; reflexivity|]. inversion E; subst. exfalso. apply H2. left. reflexivity.
  - destruct x2 as [|b x2]; [inversion E; subst; exfalso; apply H1; left; reflexivity|].
    inversion E; subst. destruct (IH y1 x2 y2 H3) as [-> ->].
    + intros Hin. apply H1. right. exact Hin.
    + intros Hin. apply H2. right. exact Hin.
    + split; reflexivity.
Qed.

Lemma in_utf8_ascii c s : c < 128 -> In c s -> In c (utf8_encode s).
Proof.
  intros Hc Hin. unfold utf8_encode. apply in_flat_map. exists c. split; [exact Hin|].
  rewrite encode1_ascii by exact Hc. left. reflexivity.
Qed.

(* the comma split of the bytes is the comma split of the code points *)
Lemma comma_split_chars rem h B : usv_list rem -> utf8_encode rem = h ++ 44 :: B -> ~ In 44 h ->
  exists Hc Rc, rem = Hc ++ 44 :: Rc /\ h = utf8_encode Hc /\ B = utf8_encode Rc /\ ~ In 44 Hc.
Proof.
  intros Hu E Hn.
  assert (Hin : In 44 rem).
  { apply (utf8_encode_low rem 44); [rewrite E; apply in_or_app; right; left; reflexivity|lia]. }
  destruct (split_first 44 rem Hin) as (Hc & Rc & Er & Hnc). exists Hc, Rc.
  rewrite Er, utf8_encode_app, utf8_cons, encode1_ascii in E by lia. cbn [app] in E.
  destruct (first_unique 44 _ _ _ _ E) as [E1 E2].
  - intros Hx. apply Hnc. apply (utf8_encode_low Hc 44 Hx). lia.
  - exact Hn.
  - split; [exact Er|]. split; [symmetry; exact E1|]. split; [symmetry; exact E2|exact Hnc].
Qed.

(* ... for the split find_comma_before_fragment makes: the header has no ',' and no '#' *)
Lemma comma_split rem h B : usv_list rem -> find_comma_before_fragment (utf8_encode rem) = Ok (Some (h, B)) ->
  exists Hc Rc, rem = Hc ++ 44 :: Rc /\ h = utf8_encode Hc /\ B = utf8_encode Rc
                /\ ~ In 44 Hc /\ ~ In 35 Hc /\ usv_list Hc /\ usv_list Rc.
Proof.
  intros Hur HB. destruct (find_comma_spec _ _ _ HB) as (Hsplit & Hn44 & Hn35).
  destruct (comma_split_chars rem h B Hur Hsplit Hn44) as (Hc & Rc & Er & Eh & EB & Hnc).
  exists Hc, Rc. split; [exact Er|]. split; [exact Eh|]. split; [exact EB|]. split; [exact Hnc|]. split.
  - intros Hin. apply Hn35. rewrite Eh. apply in_utf8_ascii; [lia|exact Hin].
  - rewrite Er in Hur. apply usv_app in Hur. destruct Hur as [U1 U2]. apply usv_cons in U2. tauto.
Qed.

(* the opaque path of a text whose header has no '?' / '#' *)
Lemma cbb_header Hc Rc : ~ In 63 Hc -> ~ In 35 Hc ->
  cbb_chars (Hc ++ 44 :: Rc) = strip_tnl Hc ++ 44 :: cbb_chars Rc /\ cbb_rest (Hc ++ 44 :: Rc) = cbb_rest Rc.
Proof.
  induction Hc as [|c r IH]; intros H1 H2.
  - cbn [app cbb_chars cbb_rest strip_tnl filter]. change (is_tnl 44) with false. change (is_qh 44) with false. split; reflexivity.
  - assert (Hq : is_qh c = false).
    { unfold is_qh. destruct (c =? 63) eqn:E1; [apply N.eqb_eq in E1; exfalso; apply H1; left; exact E1|].
      destruct (c =? 35) eqn:E2; [apply N.eqb_eq in E2; exfalso; apply H2; left; exact E2|]. reflexivity. }
    destruct IH as [I1 I2]; [intros Hin; apply H1; right; exact Hin|intros Hin; apply H2; right; exact Hin|].
    cbn [app cbb_chars cbb_rest]. unfold strip_tnl. cbn [filter]. unfold C02_Enc.not_tnl at 1.
    destruct (is_tnl c); cbn [negb]; [split; assumption|]. rewrite Hq. fold (strip_tnl r). rewrite I1. split; [reflexivity|exact I2].
Qed.

(* the cleaned body at code point level *)
Lemma nt_same c : C17_Body.not_tnl c = C02_Enc.not_tnl c.
Proof. reflexivity. Qed.

Lemma before_hash_utf8 s : usv_list s -> before_hash (utf8_encode s) = utf8_encode (before_hash s).
Proof.
  induction s as [|c r IH]; intros Hu; [reflexivity|]. inversion Hu as [|? ? Hc Hr]; subst.
  rewrite utf8_cons. cbn [before_hash]. destruct (c =? 35) eqn:E.
  - apply N.eqb_eq in E. subst c. reflexivity.
  - rewrite utf8_cons, <- (IH Hr).
    assert (Hno : ~ In 35 (utf8_encode1 c)).
    { intros Hin. assert (Hx : 35 = c) by (apply (utf8_encode1_low c 35 Hin); lia). subst c. discriminate. }
    clear -Hno. induction (utf8_encode1 c) as [|b l IHl]; [reflexivity|]. cbn [app before_hash].
    destruct (b =? 35) eqn:Eb; [apply N.eqb_eq in Eb; exfalso; apply Hno; left; exact Eb|].
    f_equal. apply IHl. intros Hin. apply Hno. right. exact Hin.
Qed.

Lemma usv_before_hash s : usv_list s -> usv_list (before_hash s).
Proof.
  induction s as [|c r IH]; intros Hu; [constructor|]. inversion Hu; subst. cbn [before_hash].
  destruct (c =? 35); [constructor|constructor; [assumption|apply IH; assumption]].
Qed.

Lemma clean_body_utf8 s : usv_list s -> clean_body (utf8_encode s) = utf8_encode (clean_body s).
Proof.
  intros Hu. unfold clean_body. rewrite before_hash_utf8 by exact Hu.
  change (filter C17_Body.not_tnl) with (filter C02_Enc.not_tnl).
  rewrite filter_not_tnl_utf8 by (apply usv_before_hash; exact Hu). reflexivity.
Qed.

Lemma query_chars_clean l : query_chars true l = clean_body l.
Proof.
  induction l as [|c r IH]; [reflexivity|]. cbn [query_chars]. rewrite clean_body_cons.
  change (k17_tnl c) with (is_tnl c). destruct (is_tnl c) eqn:Et.
  - replace (c =? 35) with false by (unfold is_tnl in Et; lia). exact IH.
  - rewrite andb_true_r. destruct (c =? 35); [reflexivity|]. rewrite IH. reflexivity.
Qed.

Lemma cbb_clean R :
  match cbb_rest R with
  | [] => clean_body R = cbb_chars R
  | c :: r' => (c = 35 /\ clean_body R = cbb_chars R) \/ (c = 63 /\ clean_body R = cbb_chars R ++ 63 :: query_chars true r')
  end.
Proof.
  induction R as [|c r IH]; [reflexivity|]. cbn [cbb_rest cbb_chars]. rewrite clean_body_cons.
  change (k17_tnl c) with (is_tnl c). destruct (is_tnl c) eqn:Et.
  { replace (c =? 35) with false by (unfold is_tnl in Et; lia). exact IH. }
  unfold is_qh. destruct (c =? 35) eqn:E35.
  { rewrite orb_true_r. left. apply N.eqb_eq in E35. split; [exact E35|reflexivity]. }
  destruct (c =? 63) eqn:E63; cbn [orb].
  { right. apply N.eqb_eq in E63. split; [exact E63|]. subst c. rewrite query_chars_clean. reflexivity. }
  destruct (cbb_rest r) as [|x r'].
  - rewrite IH. reflexivity.
  - destruct IH as [[I1 I2]|[I1 I2]]; [left|right]; (split; [exact I1|rewrite I2; reflexivity]).
Qed.

(* the sets the URL parser encodes with never touch '%' or a hex digit (S is a variable here) *)
Definition marks (S : aset) (bs : list N) : list (N * bool) := map (fun b => (b, should_encode S b)) bs.

Lemma encode_marks S bs : encode S bs = enc_marked (marks S bs).
Proof.
  induction bs as [|b r IH]; [reflexivity|]. rewrite encode_cons. unfold marks. cbn [map enc_marked flat_map fst snd].
  fold (marks S r). fold (enc_marked (marks S r)). rewrite <- IH. reflexivity.
Qed.

Lemma map_fst_marks S bs : map fst (marks S bs) = bs.
Proof. unfold marks. rewrite map_map. cbn [fst]. apply map_id. Qed.

Definition blind_at (S : aset) (b : N) : bool :=
  negb (should_encode S b) || (negb (b =? 37) && match ascii_hex_digit_value b with None => true | Some _ => false end).
Definition set_blind (S : aset) : Prop :=
  forall b, b < 256 -> should_encode S b = true -> b <> 37 /\ ascii_hex_digit_value b = None.

Lemma blind_of_sweep S : all_below 256 (blind_at S) = true -> set_blind S.
Proof.
  intros HS b Hb E. pose proof (all_below_spec 256 _ HS b Hb) as H. unfold blind_at in H.
  rewrite E in H. cbn [negb orb] in H. apply andb_true_iff in H. destruct H as [H1 H2]. split; [lia|].
  destruct (ascii_hex_digit_value b); [discriminate|reflexivity].
Qed.

Lemma blind_CONTROLS : set_blind T_CONTROLS. Proof. apply blind_of_sweep. vm_compute. reflexivity. Qed.
Lemma blind_QUERY : set_blind T_QUERY. Proof. apply blind_of_sweep. vm_compute. reflexivity. Qed.

Lemma marks_ok S bs : set_blind S -> bytes bs -> Forall mark_ok (marks S bs).
Proof.
  intros HS Hb. unfold marks. apply Forall_forall. intros p Hp. apply in_map_iff in Hp. destruct Hp as (b & <- & Hin).
  unfold bytes in Hb. rewrite Forall_forall in Hb. specialize (Hb b Hin). unfold is_byte in Hb.
  unfold mark_ok. cbn [fst snd]. intros E. split; [exact Hb|]. exact (HS b Hb E).
Qed.

(* percent-decoding does not see the percent-encoding of such a set *)
Lemma decode_encode S bs : set_blind S -> bytes bs -> percent_decode (encode S bs) = percent_decode bs.
Proof.
  intros HS Hb. rewrite encode_marks, (decode_marked (length (marks S bs))), map_fst_marks;
    [reflexivity|lia|apply marks_ok; assumption].
Qed.

Lemma enc_marked_app a b : enc_marked (a ++ b) = enc_marked a ++ enc_marked b.
Proof. unfold enc_marked. apply flat_map_app. Qed.

Lemma collect_until_comma_app E X : ~ In 44 E -> collect_until_comma (E ++ 44 :: X) = (E, Some X).
Proof.
  induction E as [|c r IH]; intros Hn.
  - reflexivity.
  - cbn [app collect_until_comma]. destruct (c =? 44) eqn:Ec; [apply N.eqb_eq in Ec; exfalso; apply Hn; left; exact Ec|].
    rewrite IH; [reflexivity|]. intros Hin. apply Hn. right. exact Hin.
Qed.

Lemma encode_no_comma S s : usv_list s -> ~ In 44 s -> ~ In 44 (encode S (utf8_encode s)).
Proof.
  intros Hu Hn Hin.
  assert (H : forallb (fun b => negb (b =? 44)) (encode S (utf8_encode s)) = true).
  { apply encode_utf8_forallb; [reflexivity| |exact Hu|].
    - intros d Hd. unfold hex_upper. destruct (d <? 10); lia.
    - apply Forall_forall. intros c Hc _. destruct (c =? 44) eqn:E; [apply N.eqb_eq in E; subst c; contradiction|reflexivity]. }
  rewrite forallb_forall in H. specialize (H 44 Hin). discriminate.
Qed.

Lemma usv_strip_k l : usv_list l -> usv_list (strip_tnl l).
Proof. apply usv_strip. Qed.

(* what the serializer writes between "data:" and the first comma is the encoded header, and what
   follows percent-decodes to the body *)
Theorem opaque_noq_serialized dbg hp ho hd s rem u h B : usv_list s ->
  parse_scheme CUrlParser (input_new_trim_c0 s) = Some (s_data, rem) -> inp_split_prefix_char 47 rem = None ->
  parse_url dbg hp ho hd None None s = POk u ->
  find_comma_before_fragment (utf8_encode rem) = Ok (Some (h, B)) ->
  ~ In 63 h ->
  exists encodedBody,
    collect_until_comma (skipn 5 (url_without_fragment u))
    = (encode T_CONTROLS (filter C02_Enc.not_tnl h), Some encodedBody)
    /\ (k17_split_escape B = false -> string_percent_decode encodedBody = fst (body_ref B)).
Proof.
  intros Hs Hp H47 Hu HB Hq.
  destruct (parse_opaque_explicit dbg hp ho hd s s_data rem u Hs Hp scheme_type_of_data H47 Hu) as [Hur ->].
  rewrite opaque_url_without_fragment.
  destruct (comma_split rem h B Hur HB) as (Hc & Rc & Er & Eh & EB & Hnc & Hc35 & Uh & Ur).
  assert (Hc63 : ~ In 63 Hc) by (intros Hin; apply Hq; rewrite Eh; apply in_utf8_ascii; [lia|exact Hin]).
  destruct (cbb_header Hc Rc Hc63 Hc35) as [C1 C2].
  (* the serialization after "data:" *)
  unfold opaque_pre. rewrite <- !app_assoc. change (s_data ++ [58] ++ ?x) with ([100;97;116;97;58] ++ x).
  cbn [app skipn]. unfold opaque_of. rewrite Er, C1, C2.
  rewrite enc_utf8_app, utf8_cons, encode1_ascii, <- app_assoc by lia. cbn [app]. rewrite encode_cons.
  change (enc1 T_CONTROLS 44) with [44]. cbn [app].
  rewrite Eh, filter_not_tnl_utf8 by exact Uh.
  eexists. split.
  { apply collect_until_comma_app. apply encode_no_comma; [apply usv_strip_k; exact Uh|].
    intros Hin. apply Hnc. unfold strip_tnl in Hin. apply filter_In in Hin. tauto. }
  (* the body *)
  intros Hk. rewrite (body_ref_is_percent_decode (length B) B (Nat.le_refl _) Hk).
  rewrite EB, clean_body_utf8 by exact Ur.
  pose proof (cbb_clean Rc) as Hcl. pose proof (cbb_rest_head Rc) as Hhd.
  assert (Ubc : usv_list (cbb_chars Rc)) by (apply usv_cbb_chars; exact Ur).
  unfold string_percent_decode.
  assert (Hasc : forall S t q, usv_list t -> opt_clean T_QUERY q ->
            utf8_encode (encode S (utf8_encode t) ++ qf_qtext q) = encode S (utf8_encode t) ++ qf_qtext q).
  { intros S t q Ut Hcq. apply utf8_encode_ascii. apply ascii_app. split.
    - apply encode_ascii. apply utf8_encode_bytes. exact Ut.
    - destruct q as [x|]; [|constructor]. cbn [qf_qtext]. constructor; [unfold is_ascii; lia|].
      apply (clean_ascii T_QUERY). exact Hcq. }
  destruct (cbb_rest Rc) as [|c r'] eqn:Ecr.
  - (* no '?' and no '#' *)
    unfold pqf_q. rewrite inp_next_nil. rewrite Hasc by (try exact Ubc; exact I). cbn [qf_qtext]. rewrite app_nil_r.
    rewrite Hcl. apply (decode_encode _ _ blind_CONTROLS), utf8_encode_bytes, Ubc.
  - destruct Hhd as [_ Htn]. unfold pqf_q. rewrite inp_next_cons by exact Htn.
    destruct Hcl as [[-> Hcl]|[-> Hcl]].
    + (* '#' first *)
      change (35 =? 63) with false. rewrite Hasc by (try exact Ubc; exact I). cbn [qf_qtext]. rewrite app_nil_r.
      rewrite Hcl. apply (decode_encode _ _ blind_CONTROLS), utf8_encode_bytes, Ubc.
    + (* '?' first: the rest of the body is in the URL's query *)
      change (63 =? 63) with true.
      assert (Ur' : usv_list r').
      { pose proof (usv_cbb_rest Rc Ur) as Hx. rewrite Ecr in Hx. apply usv_cons in Hx. tauto. }
      assert (Uq : usv_list (query_chars true r')) by (apply usv_query_chars; exact Ur').
      rewrite Hasc by (try exact Ubc; cbn [opt_clean]; apply (query_of_clean STNotSpecial); exact Ur').
      cbn [qf_qtext]. unfold query_of. change (query_set STNotSpecial) with T_QUERY.
      rewrite Hcl, utf8_encode_app, utf8_cons, encode1_ascii by lia. cbn [app].
      rewrite !encode_marks.
      change (enc_marked (marks T_CONTROLS (utf8_encode (cbb_chars Rc))) ++ 63 :: enc_marked (marks T_QUERY (utf8_encode (query_chars true r'))))
        with (enc_marked (marks T_CONTROLS (utf8_encode (cbb_chars Rc))) ++ enc_marked [(63, false)] ++ enc_marked (marks T_QUERY (utf8_encode (query_chars true r')))).
      rewrite <- !enc_marked_app.
      rewrite decode_marked with (n := length (marks T_CONTROLS (utf8_encode (cbb_chars Rc)) ++ [(63, false)] ++ marks T_QUERY (utf8_encode (query_chars true r')))); [|lia|].
      * rewrite !map_app, !map_fst_marks. reflexivity.
      * apply Forall_app. split; [apply marks_ok; [exact blind_CONTROLS|apply utf8_encode_bytes; exact Ubc]|].
        apply Forall_app. split; [constructor; [intros E; discriminate E|constructor]|].
        apply marks_ok; [exact blind_QUERY|apply utf8_encode_bytes; exact Uq].
Qed.

(* opaque_noq_serialized with the class hypothesis in front and the mimeType hidden
   (Properties/C17.v: C17_body) *)
Theorem body_is_fetch_body dbg hp ho hd s rem u h B : usv_list s ->
  parse_scheme CUrlParser (input_new_trim_c0 s) = Some (s_data, rem) -> inp_split_prefix_char 47 rem = None ->
  parse_url dbg hp ho hd None None s = POk u ->
  find_comma_before_fragment (utf8_encode rem) = Ok (Some (h, B)) ->
  ~ In 63 h -> k17_split_escape B = false ->
  exists mimeType encodedBody,
    collect_until_comma (skipn 5 (url_without_fragment u)) = (mimeType, Some encodedBody)
    /\ string_percent_decode encodedBody = fst (body_ref B).
Proof.
  intros Hs Hp H47 Hu HB Hq Hk.
  destruct (opaque_noq_serialized dbg hp ho hd s rem u h B Hs Hp H47 Hu HB Hq) as (eb & Hc & Hbody).
  exists (encode T_CONTROLS (filter C02_Enc.not_tnl h)), eb. split; [exact Hc|exact (Hbody Hk)].
Qed.

(* no comma before the fragment: the crate says NoComma, the Fetch processor returns failure *)
Lemma fcbf_loop_none s : forall rest i, fcbf_loop s i rest = Ok None -> ~ In 44 (before_hash rest).
Proof.
  induction rest as [|byte rest IH]; intros i; cbn [fcbf_loop before_hash]; [intros _ []|].
  change T_DU_COMMA with 44. change T_DU_HASH with 35.
  destruct (byte =? 44) eqn:E1.
  - unfold slice_to, slice_from. destruct (is_char_boundary s i); cbn [bind]; [|discriminate].
    destruct (is_char_boundary s (i + 1)); cbn [bind]; discriminate.
  - destruct (byte =? 35); [intros _ []|]. intros H [Hin|Hin]; [lia|exact (IH _ H Hin)].
Qed.

Lemma collect_until_comma_none X : ~ In 44 X -> collect_until_comma X = (X, None).
Proof.
  induction X as [|c r IH]; intros Hn; [reflexivity|]. cbn [collect_until_comma].
  destruct (c =? 44) eqn:Ec; [apply N.eqb_eq in Ec; exfalso; apply Hn; left; exact Ec|].
  rewrite IH; [reflexivity|]. intros Hin. apply Hn. right. exact Hin.
Qed.

Lemma in_clean_body x l : In x (clean_body l) -> In x (before_hash l).
Proof. unfold clean_body. intros H. apply filter_In in H. tauto. Qed.

Theorem no_comma_is_fetch_failure dbg hp ho hd s rem u : usv_list s ->
  parse_scheme CUrlParser (input_new_trim_c0 s) = Some (s_data, rem) -> inp_split_prefix_char 47 rem = None ->
  parse_url dbg hp ho hd None None s = POk u ->
  find_comma_before_fragment (utf8_encode rem) = Ok None ->
  Fetch.process (url_without_fragment u) = None.
Proof.
  intros Hs Hp H47 Hu HB.
  destruct (parse_opaque_explicit dbg hp ho hd s s_data rem u Hs Hp scheme_type_of_data H47 Hu) as [Hur ->].
  rewrite opaque_url_without_fragment.
  pose proof (fcbf_loop_none _ _ _ HB) as Hn. rewrite before_hash_utf8 in Hn by exact Hur.
  assert (Hn' : ~ In 44 (clean_body rem)).
  { intros Hin. apply Hn. apply in_utf8_ascii; [lia|]. apply in_clean_body. exact Hin. }
  pose proof (cbb_clean rem) as Hcl. pose proof (cbb_rest_head rem) as Hhd.
  assert (Ubc : usv_list (cbb_chars rem)) by (apply usv_cbb_chars; exact Hur).
  assert (Hx : ~ In 44 (opaque_of rem ++ qf_qtext (pqf_q STNotSpecial (cbb_rest rem)))).
  { unfold opaque_of. intros Hin. apply in_app_or in Hin.
    destruct (cbb_rest rem) as [|c r'] eqn:Ecr.
    - unfold pqf_q in Hin. rewrite inp_next_nil in Hin. cbn [qf_qtext] in Hin. destruct Hin as [Hin|[]].
      revert Hin. apply encode_no_comma; [exact Ubc|]. rewrite <- Hcl. exact Hn'.
    - destruct Hhd as [_ Htn]. unfold pqf_q in Hin. rewrite inp_next_cons in Hin by exact Htn.
      destruct Hcl as [[-> Hcl]|[-> Hcl]].
      + change (35 =? 63) with false in Hin. cbn [qf_qtext] in Hin. destruct Hin as [Hin|[]].
        revert Hin. apply encode_no_comma; [exact Ubc|]. rewrite <- Hcl. exact Hn'.
      + change (63 =? 63) with true in Hin. cbn [qf_qtext] in Hin.
        assert (Ur' : usv_list r').
        { pose proof (usv_cbb_rest rem Hur) as Hy. rewrite Ecr in Hy. apply usv_cons in Hy. tauto. }
        rewrite Hcl in Hn'. destruct Hin as [Hin|[Hin|Hin]].
        * revert Hin. apply encode_no_comma; [exact Ubc|]. intros H. apply Hn'. apply in_or_app. left. exact H.
        * discriminate Hin.
        * unfold query_of in Hin. revert Hin. apply encode_no_comma; [apply usv_query_chars; exact Ur'|].
          intros H. apply Hn'. apply in_or_app. right. right. exact H. }
  unfold Fetch.process, opaque_pre. rewrite <- !app_assoc. change (s_data ++ [58] ++ ?x) with ([100;97;116;97;58] ++ x).
  cbn [app remove_data_colon]. rewrite (collect_until_comma_none _ Hx). reflexivity.
Qed.
