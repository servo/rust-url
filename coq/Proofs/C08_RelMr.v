(* Proofs/C08_RelMr.v - make_relative on hierarchical records in explicit form
     hier_url pre ... segs last q f  =  pre "/" seg "/" ... "/" last ["?" q]["#" f]
   (pre = everything in front of the path): the accessors, extract_path_filename and the two split
   iterators, the common-prefix loop, the ".." loop, the rest loop and the filename rule in closed form. *)
From RU Require Import Base.Prelude Base.Utf8 Base.Utf8Facts Model.AsciiSet Gen.Tables Model.PercentEncoding
  Model.HostT Model.UrlRecord Model.Parser Model.WF Model.MakeRelative Model.KnownC08
  Proofs.ListN Proofs.C02_Enc Proofs.C02_Parts Proofs.C02_Opaque Proofs.C02_Path Proofs.C02_PathL1 Proofs.C02_FileParse
  Proofs.C08_RelEval Proofs.C08_RelPath Proofs.C08_RelJoin.

Definition hier_url (pre : list N) (se ue hs he : N) (hi : host_internal) (po : option N)
           (segs : list (list N)) (last : list N) (q f : option (list N)) : url :=
  let P := pre ++ path_text segs last in
  mkUrl (P ++ qf_text q f) se ue hs he hi po (nlen pre) (qf_qs (nlen P) q) (qf_fs (nlen P) q f).

Lemma nnth_app_mid a c b : nnth (a ++ c :: b) (nlen a) = Some c.
Proof. unfold nnth, nlen. rewrite Nat2N.id. rewrite nth_error_app2 by lia. rewrite Nat.sub_diag. reflexivity. Qed.

Section Accessors.
Variables (pre : list N) (se ue hs he : N) (hi : host_internal) (po : option N).
Variables (segs : list (list N)) (last : list N) (q f : option (list N)).
Notation u := (hier_url pre se ue hs he hi po segs last q f).
Notation P := (pre ++ path_text segs last).

Lemma hier_before_query : b_before_query u = P.
Proof.
  unfold b_before_query, hier_url. cbn [query_start fragment_start ser].
  destruct q as [x|]; destruct f as [y|]; cbn [qf_qs qf_fs qf_qtext].
  - apply nfirstn_app_len.
  - apply nfirstn_app_len.
  - change (nlen []) with 0. rewrite N.add_0_r. apply nfirstn_app_len.
  - unfold qf_text. cbn [qf_qtext qf_ftext app]. apply app_nil_r.
Qed.

Lemma hier_before_fragment : b_before_fragment u = P ++ qf_qtext q.
Proof.
  unfold b_before_fragment, hier_url. cbn [fragment_start ser]. unfold qf_text.
  destruct f as [y|]; cbn [qf_fs qf_ftext].
  - rewrite app_assoc. rewrite <- nlen_app. apply nfirstn_app_len.
  - rewrite app_nil_r. reflexivity.
Qed.

Lemma hier_path : path u = Some (path_text segs last).
Proof.
  unfold path, hier_url, u_slice, u_slice_from. cbn [query_start fragment_start ser path_start].
  assert (slice_o (P ++ qf_text q f) (nlen pre) (nlen P) = Some (path_text segs last)) as Hs.
  { rewrite <- app_assoc. rewrite nlen_app. apply slice_mid. }
  destruct q as [x|]; destruct f as [y|]; cbn [qf_qs qf_fs qf_qtext].
  - exact Hs.
  - exact Hs.
  - change (nlen []) with 0. rewrite N.add_0_r. exact Hs.
  - unfold qf_text. cbn [qf_qtext qf_ftext app]. rewrite app_nil_r.
    rewrite slice_from_o_some by (rewrite nlen_app; lia). rewrite nskipn_app_len. reflexivity.
Qed.

Lemma hier_query dbg : query dbg u = Some q.
Proof.
  unfold query, hier_url, u_slice, u_slice_from, byte_is, byte_at. cbn [query_start fragment_start ser].
  destruct q as [x|]; [|destruct f; reflexivity].
  unfold qf_text. cbn [qf_qs qf_qtext].
  assert (nnth (P ++ (63 :: x) ++ qf_ftext f) (nlen P) = Some 63) as Hb by (cbn [app]; apply nnth_app_mid).
  assert ((if dbg then c <- (x0 <- nnth (P ++ (63 :: x) ++ qf_ftext f) (nlen P);; Some (x0 =? 63));; assert_o c else Some tt) = Some tt) as ->.
  { destruct dbg; [|reflexivity]. rewrite Hb. reflexivity. }
  cbn [bindo].
  destruct f as [y|]; cbn [qf_fs qf_ftext qf_qtext].
  - rewrite slice_o_some by (rewrite !nlen_app, !nlen_cons; lia).
    replace (nlen P + nlen (63 :: x) - (nlen P + 1)) with (nlen x) by (rewrite nlen_cons; lia).
    rewrite nskipn_app_add. cbn [app]. change (nskipn 1 (63 :: x ++ 35 :: y)) with (x ++ 35 :: y).
    rewrite nfirstn_app_len. reflexivity.
  - rewrite app_nil_r. rewrite slice_from_o_some by (rewrite !nlen_app, !nlen_cons; lia).
    rewrite nskipn_app_add. change (nskipn 1 (63 :: x)) with x. reflexivity.
Qed.

Lemma hier_fragment dbg : fragment dbg u = Some f.
Proof.
  unfold fragment, hier_url, u_slice_from, byte_is, byte_at. cbn [fragment_start ser].
  destruct f as [y|]; [|reflexivity]. unfold qf_text. cbn [qf_fs qf_ftext].
  assert (nnth (P ++ qf_qtext q ++ 35 :: y) (nlen P + nlen (qf_qtext q)) = Some 35) as Hb.
  { rewrite app_assoc, <- nlen_app. apply nnth_app_mid. }
  assert ((if dbg then c <- (x0 <- nnth (P ++ qf_qtext q ++ 35 :: y) (nlen P + nlen (qf_qtext q));; Some (x0 =? 35));; assert_o c else Some tt) = Some tt) as ->.
  { destruct dbg; [|reflexivity]. rewrite Hb. reflexivity. }
  cbn [bindo]. rewrite slice_from_o_some by (rewrite !nlen_app, !nlen_cons; lia).
  rewrite app_assoc, <- nlen_app. rewrite nskipn_app_add. change (nskipn 1 (35 :: y)) with y. reflexivity.
Qed.

Lemma hier_pre_of : nfirstn (nlen pre) (ser u) = pre.
Proof. unfold hier_url. cbn [ser]. rewrite <- app_assoc. apply nfirstn_app_len. Qed.

End Accessors.

(* extract_path_filename and the split iterators on a canonical path *)
Definition lead (segs : list (list N)) : list N := flat_map (fun s => 47 :: s) segs.

Lemma segs_text_lead segs : 47 :: segs_text segs = lead segs ++ [47].
Proof.
  induction segs as [|s segs IH]; [reflexivity|].
  unfold segs_text, lead. cbn [map concat flat_map]. fold (segs_text segs). fold (lead segs).
  rewrite <- !app_assoc. cbn [app]. f_equal. f_equal. exact IH.
Qed.

Lemma path_text_lead segs last : path_text segs last = lead segs ++ 47 :: last.
Proof.
  unfold path_text. change (47 :: segs_text segs ++ last) with ((47 :: segs_text segs) ++ last).
  rewrite segs_text_lead, <- app_assoc. reflexivity.
Qed.

Lemma extract_path_text segs last : no_slash last = true ->
  extract_path_filename (path_text segs last)
  = if char_boundary_1 (47 :: last) then Some (lead segs, last) else None.
Proof.
  intros Hl. unfold extract_path_filename. rewrite path_text_lead.
  rewrite rfind_app_last by (rewrite <- no_slash_no_byte; exact Hl).
  rewrite nfirstn_app_len, nskipn_app_len. reflexivity.
Qed.

Lemma split_on_aux_lead segs : forall cur, forallb no_slash segs = true ->
  split_on_aux 47 cur (lead segs) = rev cur :: segs.
Proof.
  induction segs as [|s segs IH]; intros cur H; [reflexivity|].
  cbn [forallb] in H. apply andb_true_iff in H. destruct H as [H1 H2].
  unfold lead. cbn [flat_map]. fold (lead segs). cbn [app split_on_aux].
  replace (47 =? 47) with true by reflexivity. f_equal.
  rewrite split_on_aux_seg by exact H1. rewrite IH by exact H2. rewrite app_nil_r, rev_involutive. reflexivity.
Qed.

Lemma split_on_lead segs : forallb no_slash segs = true -> split_on 47 (lead segs) = [] :: segs.
Proof. intros H. unfold split_on. rewrite split_on_aux_lead by exact H. reflexivity. Qed.

(* the common-prefix loop *)
Lemma skip_common_split a : forall b, exists common ra rb,
  a = common ++ ra /\ b = common ++ rb /\ skip_common a b = (ra, rb).
Proof.
  induction a as [|x a IH]; intros b.
  - exists [], [], b. repeat split.
  - destruct b as [|y b].
    + exists [], (x :: a), []. repeat split.
    + cbn [skip_common]. destruct (list_eqb x y) eqn:E.
      * apply list_eqb_spec in E. subst y. destruct (IH b) as (c & ra & rb & E1 & E2 & E3).
        exists (x :: c), ra, rb. cbn [app]. rewrite <- E1, <- E2. repeat split. exact E3.
      * exists [], (x :: a), (y :: b). repeat split.
Qed.

(* the two emitting loops and the filename rule *)
Definition nonempty (s : list N) : bool := negb (is_nil s).

Lemma push_sep_cons c l : push_sep (c :: l) = (c :: l) ++ [47].
Proof. reflexivity. Qed.

Lemma push_sep_app_cons x c l : push_sep (x ++ c :: l) = (x ++ c :: l) ++ [47].
Proof. destruct x; reflexivity. Qed.

Lemma push_sep_emit_dotdot ra : forall rel, forallb nonempty ra = true ->
  push_sep (emit_dotdot rel ra) = push_sep rel ++ dots_text ra.
Proof.
  induction ra as [|s ra IH]; intros rel H.
  - cbn [emit_dotdot dots_text map concat]. rewrite app_nil_r. reflexivity.
  - cbn [forallb] in H. apply andb_true_iff in H. destruct H as [H1 H2].
    destruct s as [|c s]; [discriminate|]. cbn [emit_dotdot]. rewrite IH by exact H2.
    change [46; 46] with ([46] ++ [46]). rewrite app_assoc. rewrite push_sep_app_cons.
    unfold dots_text. cbn [map concat]. rewrite <- !app_assoc. reflexivity.
Qed.

Lemma push_sep_emit_rest rb : forall rel, forallb nonempty rb = true ->
  push_sep (emit_rest rel rb) = push_sep rel ++ segs_text rb.
Proof.
  induction rb as [|s rb IH]; intros rel H.
  - cbn [emit_rest segs_text map concat]. rewrite app_nil_r. reflexivity.
  - cbn [forallb] in H. apply andb_true_iff in H. destruct H as [H1 H2].
    destruct s as [|c s]; [discriminate|]. cbn [emit_rest]. rewrite IH by exact H2.
    rewrite push_sep_app_cons. unfold segs_text. cbn [map concat]. rewrite <- !app_assoc. reflexivity.
Qed.

(* the path part of the reference, in closed form *)
Definition rel_path_text (ra rb : list (list N)) (bl tl : list N) : list N :=
  match ra, rb with
  | [], [] => if list_eqb bl tl then [] else if is_nil tl then [47] else tl
  | _, _ => dots_text ra ++ segs_text rb ++ tl
  end.

(* the three shapes of that text: a path part, "/" for the root below the base's directory, nothing for the same path *)
Lemma rel_path_text_cases (P : list N -> Prop) ra rb bl tl :
  (ra <> [] \/ rb <> [] \/ (tl <> [] /\ list_eqb bl tl = false) -> P (dots_text ra ++ segs_text rb ++ tl)) ->
  (ra = [] -> rb = [] -> tl = [] -> list_eqb bl tl = false -> P [47]) ->
  (ra = [] -> rb = [] -> list_eqb bl tl = true -> P []) ->
  P (rel_path_text ra rb bl tl).
Proof.
  intros Hpath Hroot Hsame. unfold rel_path_text.
  destruct ra as [|a ra]; [|apply Hpath; left; discriminate].
  destruct rb as [|s rb]; [|apply Hpath; right; left; discriminate].
  destruct (list_eqb bl tl) eqn:El; [apply Hsame; trivial|].
  destruct tl as [|c l]; [apply Hroot; trivial|].
  apply Hpath. right. right. split; [discriminate | reflexivity].
Qed.

Lemma add_filename_eq ra rb bl tl : forallb nonempty ra = true -> forallb nonempty rb = true ->
  add_filename (emit_rest (emit_dotdot [] ra) rb) bl tl = rel_path_text ra rb bl tl.
Proof.
  intros Ha Hb. set (rel2 := emit_rest (emit_dotdot [] ra) rb).
  assert (push_sep rel2 = dots_text ra ++ segs_text rb) as Hp.
  { unfold rel2. rewrite push_sep_emit_rest by exact Hb. rewrite push_sep_emit_dotdot by exact Ha. reflexivity. }
  assert (match ra, rb with [], [] => True | _, _ => exists c l, rel2 = c :: l end) as Hne.
  { destruct ra as [|a ra'].
    - destruct rb as [|b0 rb']; [exact I|]. destruct rel2 as [|c l]; [|exists c, l; reflexivity].
      cbn [push_sep dots_text map concat app] in Hp. cbn [forallb] in Hb. destruct b0; discriminate.
    - destruct rel2 as [|c l]; [|exists c, l; reflexivity]. discriminate. }
  unfold rel_path_text.
  destruct ra as [|a ra'].
  - destruct rb as [|b0 rb'].
    + unfold add_filename. cbn [emit_dotdot emit_rest is_nil negb orb push_sep app].
      destruct (list_eqb bl tl); cbn [negb]; [reflexivity|]. destruct (is_nil tl); reflexivity.
    + destruct Hne as (c & l & E). fold rel2. rewrite app_assoc. rewrite <- Hp. rewrite E. unfold add_filename. cbn [is_nil negb orb].
      destruct tl as [|d tl']; cbn [is_nil]; [rewrite app_nil_r; reflexivity | reflexivity].
  - destruct Hne as (c & l & E). fold rel2. rewrite app_assoc. rewrite <- Hp. rewrite E. unfold add_filename. cbn [is_nil negb orb].
    destruct tl as [|d tl']; cbn [is_nil]; [rewrite app_nil_r; reflexivity | reflexivity].
Qed.

Lemma mr_path_part_hier bsegs bl tsegs tl ra rb :
  forallb no_slash bsegs = true -> forallb no_slash tsegs = true ->
  skip_common bsegs tsegs = (ra, rb) -> forallb nonempty ra = true -> forallb nonempty rb = true ->
  mr_path_part (lead bsegs) bl (lead tsegs) tl = rel_path_text ra rb bl tl.
Proof.
  intros Hb Ht Hs Ha Hr. unfold mr_path_part. rewrite !split_on_lead by assumption.
  cbn [skip_common list_eqb]. rewrite Hs. apply add_filename_eq; assumption.
Qed.

(* inversion of make_relative *)
Lemma make_relative_inv dbg b t r pb pt q f : make_relative dbg b t = Some (Some r) ->
  path b = Some pb -> path t = Some pt -> query dbg t = Some q -> fragment dbg t = Some f ->
  exists eb et, extract_path_filename pb = Some eb /\ extract_path_filename pt = Some et
    /\ r = mr_path_part (fst eb) (snd eb) (fst et) (snd et) ++ qf_text q f.
Proof.
  intros H Pb Pt Q F. unfold make_relative in H.
  destruct (cannot_be_a_base b) as [cb|]; cbn [bindo] in H; [|discriminate].
  destruct (if cb then Some true else cannot_be_a_base t) as [ct|]; cbn [bindo] in H; [|discriminate].
  destruct (cb || ct); [discriminate|].
  destruct (scheme b) as [sb|]; cbn [bindo] in H; [|discriminate].
  destruct (scheme t) as [st|]; cbn [bindo] in H; [|discriminate].
  destruct (negb (list_eqb sb st)); [discriminate|].
  destruct (host_of b) as [hb|]; cbn [bindo] in H; [|discriminate].
  destruct (host_of t) as [ht|]; cbn [bindo] in H; [|discriminate].
  destruct (negb (mr_opt_host_eqb hb ht)); [discriminate|].
  destruct (negb (opt_eqb (port b) (port t))); [discriminate|].
  rewrite Pb, Pt in H. cbn [bindo] in H.
  destruct (extract_path_filename pb) as [eb|]; cbn [bindo] in H; [|discriminate].
  destruct (extract_path_filename pt) as [et|]; cbn [bindo] in H; [|discriminate].
  rewrite Q in H. cbn [bindo] in H. rewrite F in H. cbn [bindo] in H.
  exists eb, et. split; [reflexivity|]. split; [reflexivity|].
  inversion H. unfold qf_text. destruct q; destruct f; cbn [qf_qtext qf_ftext app]; rewrite ?app_nil_r, <- ?app_assoc; reflexivity.
Qed.

(* records behind an authority *)
Lemma hier_cbb pre se ue hs he hi po segs last q f : front_pre se pre ->
  cannot_be_a_base (hier_url pre se ue hs he hi po segs last q f) = Some false.
Proof.
  intros [(A & R & -> & <-)|(A & -> & <-)]; unfold cannot_be_a_base, u_slice_from, hier_url; cbn [ser scheme_end].
  - rewrite slice_from_o_some by (rewrite !nlen_app; unfold nlen; cbn [length]; lia).
    rewrite <- !app_assoc. rewrite nskipn_app_add. reflexivity.
  - rewrite slice_from_o_some by (rewrite !nlen_app; unfold nlen; cbn [length]; lia).
    rewrite <- !app_assoc. rewrite nskipn_app_add. reflexivity.
Qed.

Lemma hier_b_scheme pre se ue hs he hi po segs last q f : front_pre se pre ->
  b_scheme (hier_url pre se ue hs he hi po segs last q f) = nfirstn se pre.
Proof.
  intros [(A & R & -> & <-)|(A & -> & <-)]; unfold b_scheme, hier_url; cbn [ser scheme_end];
    rewrite <- !app_assoc; rewrite !nfirstn_app_len; reflexivity.
Qed.

(* what MR_ok says about two such records with the same front *)
Lemma existsb_nil_nonempty l : existsb is_nil l = false -> forallb nonempty l = true.
Proof.
  induction l as [|s l IH]; intros H; [reflexivity|]. cbn [existsb] in H. apply orb_false_iff in H. destruct H as [H1 H2].
  cbn [forallb]. unfold nonempty at 1. rewrite H1, (IH H2). reflexivity.
Qed.

Lemma mr_ok_hier pre se ue hs he hi po se' ue' hs' he' hi' po' bsegs blast bq bf tsegs tlast tq tf :
  cannot_be_a_base (hier_url pre se ue hs he hi po bsegs blast bq bf) = Some false ->
  cannot_be_a_base (hier_url pre se' ue' hs' he' hi' po' tsegs tlast tq tf) = Some false ->
  forallb no_slash bsegs = true -> no_slash blast = true -> forallb no_slash tsegs = true -> no_slash tlast = true ->
  mr_ok (hier_url pre se ue hs he hi po bsegs blast bq bf) (hier_url pre se' ue' hs' he' hi' po' tsegs tlast tq tf) = true ->
  forallb nonempty bsegs = true /\ forallb nonempty tsegs = true
  /\ existsb starts_with_wdl
       (if st_is_file (scheme_type_of (b_scheme (hier_url pre se ue hs he hi po bsegs blast bq bf)))
        then ([] :: bsegs) ++ ([] :: tsegs) ++ [blast; tlast] else fst (skip_common bsegs tsegs)) = false
  /\ forall ra rb, skip_common bsegs tsegs = (ra, rb) ->
       (ra = [] -> rb = [] -> list_eqb blast tlast = false -> tlast = [] -> bsegs = [])
       /\ (ra = [] -> has_scheme_b (match rb with s :: _ => s | [] => if list_eqb blast tlast then [] else tlast end) = false)
       /\ (ra = [] -> rb = [] -> list_eqb blast tlast = true -> tq = None -> bq = None).
Proof.
  intros Hcb1 Hcb2 Hb Hbl Ht Htl H. unfold mr_ok, mr_class in H.
  rewrite Hcb1, Hcb2 in H.
  rewrite !hier_path in H.
  change (path_start (hier_url pre se ue hs he hi po bsegs blast bq bf)) with (nlen pre) in H.
  change (path_start (hier_url pre se' ue' hs' he' hi' po' tsegs tlast tq tf)) with (nlen pre) in H.
  rewrite !hier_pre_of in H. rewrite list_eqb_refl in H. cbn [negb] in H.
  change (starts_with [47] (path_text bsegs blast)) with true in H.
  change (starts_with [47] (path_text tsegs tlast)) with true in H. cbn [andb negb] in H.
  rewrite !extract_path_text in H by assumption.
  destruct (char_boundary_1 (47 :: blast)); [|exfalso; lia].
  destruct (char_boundary_1 (47 :: tlast)); [|exfalso; lia].
  rewrite !split_on_lead in H by assumption. cbn [tl] in H.
  destruct (existsb is_nil bsegs) eqn:E1; [exfalso; cbn [orb] in H; lia|].
  destruct (existsb is_nil tsegs) eqn:E2; [exfalso; cbn [orb] in H; lia|]. cbn [orb] in H.
  destruct (existsb is_dotty (tsegs ++ [tlast])); [exfalso; lia|].
  cbn [skip_common list_eqb] in H.
  destruct (existsb starts_with_wdl
              (if st_is_file (scheme_type_of (b_scheme (hier_url pre se ue hs he hi po bsegs blast bq bf)))
               then ([] :: bsegs) ++ ([] :: tsegs) ++ [blast; tlast] else fst (skip_common bsegs tsegs))) eqn:E3; [exfalso; lia|].
  split; [apply existsb_nil_nonempty; exact E1|]. split; [apply existsb_nil_nonempty; exact E2|]. split; [reflexivity|].
  intros ra rb Es. rewrite Es in H.
  change (query_start (hier_url pre se' ue' hs' he' hi' po' tsegs tlast tq tf)) with (qf_qs (nlen (pre ++ path_text tsegs tlast)) tq) in H.
  change (query_start (hier_url pre se ue hs he hi po bsegs blast bq bf)) with (qf_qs (nlen (pre ++ path_text bsegs blast)) bq) in H.
  split; [|split].
  - intros -> -> El ->. cbn [nil_segs andb is_nil negb] in H. rewrite El in H. cbn [negb andb length] in H.
    destruct bsegs as [|s0 bs]; [reflexivity|]. exfalso. cbn [length] in H.
    destruct (1 <? N.of_nat (S (S (length bs)))) eqn:E; [lia|].
    apply N.ltb_ge in E. rewrite !Nat2N.inj_succ in E. clear - E. lia.
  - intros ->. cbn [nil_segs andb] in H.
    destruct (nil_segs rb && negb (list_eqb blast tlast) && is_nil tlast && (1 <? N.of_nat (length ([] :: bsegs)))); [exfalso; lia|].
    destruct rb as [|s rb'].
    + cbn [nil_segs andb] in H.
      destruct (has_scheme_b (if list_eqb blast tlast then [] else tlast)); [exfalso; lia | reflexivity].
    + cbn [nil_segs andb] in H. destruct (has_scheme_b s); [exfalso; lia | reflexivity].
  - intros -> -> El ->. cbn [nil_segs andb] in H. rewrite El in H. cbn [negb andb] in H.
    change (has_scheme_b []) with false in H. cbn iota in H.
    destruct bq as [x|]; [|reflexivity]. exfalso. cbn [qf_qs andb] in H. lia.
Qed.
