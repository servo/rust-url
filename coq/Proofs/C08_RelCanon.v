(* Proofs/C08_RelCanon.v - the inverse law on arbitrary records: a computable recogniser of the explicit
   form of C08_RelLaw (hier_canon: the record IS  pre "/" seg "/" ... "/" last [?q][#f]  with the stored
   offsets; rel_base_ok: "scheme://" or just "scheme:" in front and not a file URL; rel_target_ok: the target's segments,
   query and fragment are canonical for the base's scheme type; main_eqb: the seven stored values in
   front of the path agree). *)
From RU Require Import Base.Prelude Base.Utf8 Base.Utf8Facts Model.AsciiSet Gen.Tables Model.PercentEncoding
  Model.HostT Model.UrlRecord Model.Parser Model.Setters Model.WF Model.MakeRelative Model.KnownC08
  Proofs.ListN Proofs.C14_Enc Proofs.C02_Enc Proofs.C02_Parts Proofs.C02_Opaque Proofs.C02_Path Proofs.C02_PathL1
  Proofs.C08_Input Proofs.C08_Simple Proofs.C08_Contain Proofs.C08_RelEval Proofs.C08_RelPath Proofs.C08_RelJoin
  Proofs.C08_RelMr Proofs.C08_RelLaw.

Lemma hi_eqb_true a b : hi_eqb a b = true -> a = b.
Proof.
  destruct a, b; cbn [hi_eqb]; intros H; try discriminate; try reflexivity.
  - apply N.eqb_eq in H. subst. reflexivity.
  - apply list_eqb_spec in H. subst. reflexivity.
Qed.

Lemma opt_eqb_true a b : opt_eqb a b = true -> a = b.
Proof. destruct a, b; cbn [opt_eqb]; intros H; try discriminate; try reflexivity. apply N.eqb_eq in H. subst. reflexivity. Qed.

Lemma url_eqb_true u v : url_eqb u v = true -> u = v.
Proof.
  destruct u as [s1 a1 b1 c1 d1 e1 f1 g1 h1 i1], v as [s2 a2 b2 c2 d2 e2 f2 g2 h2 i2]. unfold url_eqb.
  cbn [ser scheme_end username_end host_start host_end hosti port path_start query_start fragment_start].
  intros H. repeat (apply andb_true_iff in H; destruct H as [H ?]).
  apply list_eqb_spec in H.
  repeat match goal with X : (_ =? _) = true |- _ => apply N.eqb_eq in X end.
  repeat match goal with X : opt_eqb _ _ = true |- _ => apply opt_eqb_true in X end.
  match goal with X : hi_eqb _ _ = true |- _ => apply hi_eqb_true in X end.
  subst. reflexivity.
Qed.

Definition hier_parts (u : url) : option (list (list N) * list N * option (list N) * option (list N)) :=
  match path u, query true u, fragment true u with
  | Some (47 :: rest), Some q, Some f =>
      let l := split_on 47 rest in Some (removelast l, last l [], q, f)
  | _, _, _ => None
  end.

Definition u_pre (u : url) : list N := nfirstn (path_start u) (ser u).

Definition hier_canon (u : url) : bool :=
  match hier_parts u with
  | Some (segs, lst, q, f) =>
      url_eqb u (hier_url (u_pre u) (scheme_end u) (username_end u) (host_start u) (host_end u) (hosti u) (port u)
                          segs lst q f)
      && forallb no_slash segs && no_slash lst
  | None => false
  end.

Definition rel_base_ok (b : url) : bool :=
  (scheme_end b <=? nlen (u_pre b))
  && (starts_with s_css (nskipn (scheme_end b) (u_pre b)) || list_eqb (nskipn (scheme_end b) (u_pre b)) [58])
  && negb (st_is_file (b_st b)).

Definition opt_cleanb (S : aset) (o : option (list N)) : bool :=
  match o with Some x => clean S x | None => true end.

Definition rel_target_ok (st : scheme_type) (t : url) : bool :=
  match hier_parts t with
  | Some (segs, lst, q, f) =>
      forallb (seg_ok st) segs && seg_ok st lst && opt_cleanb (query_set st) q && opt_cleanb T_FRAGMENT f
      && (nlen (ser t) <=? U32_MAX_P)
  | None => false
  end.

Definition main_eqb (b t : url) : bool :=
  (scheme_end t =? scheme_end b) && (username_end t =? username_end b) && (host_start t =? host_start b)
  && (host_end t =? host_end b) && hi_eqb (hosti t) (hosti b) && opt_eqb (port t) (port b)
  && (path_start t =? path_start b).

(* the computable domain of the theorem: both records in the explicit form, same stored front, base with
   authority and not file, target canonical, and the pair inside MR_ok *)
Definition rel_canon (b t : url) : bool :=
  hier_canon b && hier_canon t && rel_base_ok b && rel_target_ok (b_st b) t && main_eqb b t && mr_ok b t.

Lemma opt_cleanb_spec S o : opt_cleanb S o = true -> opt_clean S o.
Proof. destruct o; cbn [opt_cleanb opt_clean]; intros H; [exact H | exact I]. Qed.

Lemma mr_ok_pre b t : mr_ok b t = true -> u_pre b = u_pre t.
Proof.
  unfold mr_ok, mr_class, u_pre. intros H.
  destruct (cannot_be_a_base b) as [[|]|]; try (exfalso; lia).
  destruct (cannot_be_a_base t) as [[|]|]; try (exfalso; lia).
  destruct (path b); [|exfalso; lia]. destruct (path t); [|exfalso; lia].
  destruct (list_eqb (nfirstn (path_start b) (ser b)) (nfirstn (path_start t) (ser t))) eqn:E; [|exfalso; cbn [negb] in H; lia].
  apply list_eqb_spec. exact E.
Qed.

Lemma front_auth_of se pre : se <= nlen pre -> starts_with s_css (nskipn se pre) = true -> front_auth se pre.
Proof.
  intros Hle Hs. apply starts_with_split in Hs.
  exists (nfirstn se pre), (skipn (length s_css) (nskipn se pre)). split.
  - change ([58; 47; 47] ++ skipn (length s_css) (nskipn se pre)) with (s_css ++ skipn (length s_css) (nskipn se pre)).
    rewrite <- Hs. symmetry. apply nfirstn_nskipn.
  - apply nlen_nfirstn. exact Hle.
Qed.

Lemma front_pre_of se pre : se <= nlen pre ->
  starts_with s_css (nskipn se pre) || list_eqb (nskipn se pre) [58] = true -> front_pre se pre.
Proof.
  intros Hle H. apply orb_true_iff in H. destruct H as [H|H].
  - left. apply front_auth_of; assumption.
  - right. apply list_eqb_spec in H. exists (nfirstn se pre). split.
    + rewrite <- H. symmetry. apply nfirstn_nskipn.
    + apply nlen_nfirstn. exact Hle.
Qed.

Section Canon.
Variables (dbg : bool) (hp hpo : list N -> result host) (hd : host -> list N).

End Canon.

(* non-vacuity: pairs of parse results inside the domain *)
From Coq Require Import String.
From RU Require Import Proofs.C02_Reach.
Open Scope string_scope.

Definition rel_canon_on (bs ts : string) : bool :=
  match toy_parse bs, toy_parse ts with POk b, POk t => rel_canon b t | _, _ => false end.

(* the reference make_relative answers on the pair *)
Definition mr_answer (bs ts rs : string) : bool :=
  match toy_parse bs, toy_parse ts with
  | POk b, POk t => match make_relative true b t with Some (Some r) => list_eqb r (B rs) | _ => false end
  | _, _ => false
  end.

