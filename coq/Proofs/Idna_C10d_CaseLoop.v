(* Proofs/Idna_C10d_CaseLoop.v - the fail-fast process_inner in closed form (C10, case-insensitivity).
   pres l       what the label step appends for an input label l that is not passed through: (buffer text, flag, entries);
   proc_all ls  the same for a list of labels;
   inner_closed process_inner(fail_fast) d = the leading pass-through labels of d are skipped (ptake / pdrop), the others
                are processed one by one (proc_all), then the bidi pass (finish).
   A pass-through label that is processed anyway yields itself with the entry MixedCaseAscii (pres_pass): the run can be
   compared with the VIRTUAL run proc_all (split_on DOT d) that passes nothing through; the virtual runs of two ASCII case
   variants return the same buffer texts and entries that differ by the case of their labels (proc_all_cv). *)
From RU Require Import Base.Prelude Base.Utf8 Base.U32_c13 Gen.Tables Model.Punycode Model.Uts46
  Proofs.Idna_Sim Proofs.Idna_Api Proofs.Idna_Known Proofs.Idna_Hyp Proofs.Idna_Redisc
  Proofs.Idna_C10_Deny Proofs.Idna_C10_Prefix Proofs.Idna_C10_Inner Proofs.Idna_C10_Walk
  Proofs.Idna_C10b_AsciiInner Proofs.Idna_C10b_AsciiWalk Proofs.Idna_WalkInv Proofs.Idna_WalkEnc Proofs.Idna_WalkFun
  Proofs.Idna_C10c_Puny Proofs.Idna_C10c_Start Proofs.Idna_C10c_Drun Proofs.Idna_C10c_Loop Proofs.Idna_C10c_Rerun
  Proofs.Idna_C10c_Idem Proofs.Idna_Mark Proofs.Idna_SimRun Proofs.Idna_C10d_CaseLabel.

(* ptake ls: the leading pass-through labels of ls *)
Fixpoint ptake (ls : list (list N)) : list (list N) :=
  match ls with [] => [] | l :: r => if is_passthrough_ascii_label l then l :: ptake r else [] end.
Fixpoint pdrop (ls : list (list N)) : list (list N) :=
  match ls with [] => [] | l :: r => if is_passthrough_ascii_label l then pdrop r else l :: r end.
Lemma ptake_pdrop ls : ptake ls ++ pdrop ls = ls.
Proof. induction ls as [|l r IH]; [reflexivity|]. cbn [ptake pdrop]. destruct (is_passthrough_ascii_label l); [cbn [app]; rewrite IH|]; reflexivity. Qed.
Lemma ptake_pass ls : Forall (fun l => is_passthrough_ascii_label l = true) (ptake ls).
Proof. induction ls as [|l r IH]; [constructor|]. cbn [ptake]. destruct (is_passthrough_ascii_label l) eqn:E; constructor; assumption. Qed.
Lemma pdrop_head ls l r : pdrop ls = l :: r -> is_passthrough_ascii_label l = false.
Proof.
  induction ls as [|x xs IH]; [discriminate|]. cbn [pdrop]. destruct (is_passthrough_ascii_label x) eqn:E; [exact IH|].
  intros H. inversion H. subst. exact E.
Qed.

Lemma pass_lower deny l : DenyUpper deny -> LdhFree deny -> PassL l -> map to_lower l = l.
Proof.
  intros HU HL [Hb Hp]. apply lower_noupper. pose proof (passthrough_clean deny l HL Hb Hp) as Hc.
  eapply Forall_impl; [|exact Hc]. intros c Hcc. exact (proj1 (proj2 (clean_final deny c HU Hcc))).
Qed.

Definition VL (Xs : list (list N)) : list (list N) := concat (map (split_on DOT) Xs).
Lemma split_join_gen Xs : Xs <> [] -> split_on DOT (join_dots Xs) = VL Xs.
Proof.
  induction Xs as [|X r IH]; [congruence|]. intros _. destruct r as [|Y r'].
  - unfold VL. cbn [join_dots map concat]. rewrite app_nil_r. reflexivity.
  - rewrite join_dots_cons2, split_on_app_dot, IH by discriminate. reflexivity.
Qed.
Lemma VL_app a b : VL (a ++ b) = VL a ++ VL b.
Proof. unfold VL. rewrite map_app, concat_app. reflexivity. Qed.
Lemma VL_nodot pl : Forall nodot pl -> VL pl = pl.
Proof.
  induction 1 as [|l r Hl _ IH]; [reflexivity|]. unfold VL in *. cbn [map concat]. rewrite IH.
  pose proof (Idna_Mark.split_join [l] ltac:(discriminate) ltac:(constructor; [exact Hl|constructor])) as E. cbn [join_dots] in E. rewrite E. reflexivity.
Qed.
Lemma VL_ne X Xs : VL (X :: Xs) <> [].
Proof. unfold VL. cbn [map concat]. pose proof (Idna_WalkApi.split_on_ne X). destruct (split_on DOT X); [congruence|discriminate]. Qed.

(* ecase: two entries that differ by the case of their label *)
Definition ecase (e e' : aal) : Prop :=
  match e, e' with
  | MixedCaseAscii m, MixedCaseAscii m' => cv m m'
  | MixedCasePunycode m, MixedCasePunycode m' => cv m m'
  | AalOther, AalOther => True
  | _, _ => False
  end.
Definition ent (l : list N) (e : aal) : Prop := e = MixedCaseAscii l \/ e = MixedCasePunycode l \/ e = AalOther.
Lemma ent_recase l l' e : cv l l' -> ent l e -> ecase e (recase l' e).
Proof. intros H [->|[->| ->]]; cbn [recase ecase]; [exact H|exact H|exact I]. Qed.

Lemma outs_ecase cfg uni labels : forall ap ap', Forall2 ecase ap ap' -> outs cfg uni labels ap' = outs cfg uni labels ap.
Proof.
  induction labels as [|l r IH]; intros ap ap' H; [reflexivity|]. destruct H as [|e e' ap ap' He Hr]; [reflexivity|].
  cbn [outs]. rewrite (IH _ _ Hr).
  destruct e as [m|m|], e' as [m'|m'|]; cbn [ecase] in He; try contradiction; cbn [out_label]; unfold cv in He; rewrite ?He; reflexivity.
Qed.
Lemma outs_len cfg uni labels : forall ap os, outs cfg uni labels ap = inl os -> length labels = length ap -> length os = length labels.
Proof.
  induction labels as [|l r IH]; intros ap os H Hl.
  - cbn [outs] in H. inversion H. reflexivity.
  - destruct ap as [|e ap]; [discriminate|]. cbn [outs] in H. destruct (out_label cfg uni l e); [|discriminate].
    destruct (outs cfg uni r ap) as [os'|] eqn:E; [|discriminate]. inversion H. cbn [length] in *. rewrite (IH ap os' E); lia.
Qed.

Section Loop.
Variable A : adapter.
Variable cfg : bool.
Variable deny : N.
Variable hy : hyphens.
Hypothesis HU : DenyUpper deny.
Hypothesis HL : LdhFree deny.
Hypothesis HR : Redisc A cfg deny.

Definition pres (l : list N) : step (list N * bool * list aal) :=
  match l with [] => SOk ([], false, [MixedCaseAscii []]) | _ => label_nonempty A cfg true hy deny l [] false [] end.

Lemma pres_he l X h E : pres l = SOk (X, h, E) -> h = false.
Proof.
  destruct l as [|b r]; cbn [pres]; intros H; [inversion H; reflexivity|].
  pose proof (label_nonempty_R A cfg hy deny (b :: r) [] [] HR) as HRl. rewrite H in HRl.
  destruct (label_nonempty A cfg false hy deny (b :: r) [] false []) as [[[x h'] e]| |s]; cbn [R] in HRl.
  - destruct (heT (x, h', e)) eqn:Eh; [discriminate|]. inversion HRl. subst. exact Eh.
  - contradiction.
  - destruct HRl; discriminate.
Qed.

Fixpoint proc_all (ls : list (list N)) : step (list (list N) * list (list aal)) :=
  match ls with
  | [] => SOk ([], [])
  | l :: r => match pres l with
              | SOk (X, _, E) => match proc_all r with
                                 | SOk (Xs, Ess) => SOk (X :: Xs, E :: Ess)
                                 | SExit => SExit | SPanic p => SPanic p end
              | SExit => SExit | SPanic p => SPanic p end
  end.

Lemma proc_all_app a : forall b, proc_all (a ++ b) =
  match proc_all a with
  | SOk (Xa, Ea) => match proc_all b with SOk (Xb, Eb) => SOk (Xa ++ Xb, Ea ++ Eb) | SExit => SExit | SPanic p => SPanic p end
  | SExit => SExit | SPanic p => SPanic p end.
Proof.
  induction a as [|l r IH]; intros b; cbn [app proc_all].
  - destruct (proc_all b) as [[Xb Eb]| |p]; reflexivity.
  - destruct (pres l) as [[[X h] E]| |p]; [|reflexivity|reflexivity]. rewrite IH.
    destruct (proc_all r) as [[Xa Ea]| |p]; [|reflexivity|reflexivity]. destruct (proc_all b) as [[Xb Eb]| |p]; reflexivity.
Qed.
Lemma proc_all_len ls : forall Xs Ess, proc_all ls = SOk (Xs, Ess) -> length Xs = length ls /\ length Ess = length ls.
Proof.
  induction ls as [|l r IH]; intros Xs Ess H; cbn [proc_all] in H; [inversion H; split; reflexivity|].
  destruct (pres l) as [[[X h] E]| |p]; try discriminate. destruct (proc_all r) as [[Xa Ea]| |p]; try discriminate.
  inversion H. destruct (IH _ _ eq_refl). cbn [length]. split; lia.
Qed.

Lemma label_step_np l s : i_inpre s && is_passthrough_ascii_label l = false -> i_he s = false ->
  label_step A cfg true hy deny l s =
  match pres l with
  | SOk (X, h, E) => SOk {| i_ptu := if i_seen s && i_inpre s then i_ptu s + 1 else i_ptu s; i_seen := true; i_inpre := false;
                            i_db := (if i_seen s && negb (i_inpre s) then i_db s ++ [DOT] else i_db s) ++ X; i_he := h;
                            i_ap := i_ap s ++ E |}
  | SExit => SExit | SPanic p => SPanic p end.
Proof.
  intros Hc Hhe. unfold label_step. rewrite Hc. destruct l as [|b r].
  - cbn [pres]. rewrite app_nil_r, Hhe. reflexivity.
  - cbn [pres]. rewrite (label_nonempty_from_nil A cfg true hy deny (b :: r)), Hhe.
    destruct (label_nonempty A cfg true hy deny (b :: r) [] false []) as [[[X h] E]| |p]; reflexivity.
Qed.

Lemma loop_np ls : forall s, i_inpre s = false -> i_seen s = true -> i_he s = false ->
  labels_loop A cfg true hy deny ls s =
  match proc_all ls with
  | SOk (Xs, Ess) => SOk {| i_ptu := i_ptu s; i_seen := true; i_inpre := false;
                            i_db := i_db s ++ concat (map (cons DOT) Xs); i_he := false; i_ap := i_ap s ++ concat Ess |}
  | SExit => SExit | SPanic p => SPanic p end.
Proof.
  induction ls as [|l r IH]; intros s Hin Hse Hhe; cbn [labels_loop proc_all].
  - cbn [map concat]. rewrite !app_nil_r. destruct s as [p se ip db he ap]. cbn [i_ptu i_seen i_inpre i_db i_he i_ap] in *. subst. reflexivity.
  - rewrite (label_step_np l s) by (try rewrite Hin; try reflexivity; exact Hhe).
    destruct (pres l) as [[[X h] E]| |p] eqn:Ep; cbn [sbind]; [|reflexivity|reflexivity].
    pose proof (pres_he l X h E Ep) as ->. rewrite IH by reflexivity. cbn [i_ptu i_seen i_inpre i_db i_he i_ap].
    rewrite Hin, Hse. cbn [andb negb].
    destruct (proc_all r) as [[Xs Ess]| |p]; [|reflexivity|reflexivity]. cbn [map concat]. rewrite <- !app_assoc. reflexivity.
Qed.

Lemma loop_start ls :
  labels_loop A cfg true hy deny ls s_start =
  match pdrop ls with
  | [] => SOk (pass_end s_start (ptake ls))
  | rest => match proc_all rest with
            | SOk (Xs, Ess) => SOk {| i_ptu := len (ptext (ptake ls)); i_seen := true; i_inpre := false;
                                      i_db := join_dots Xs; i_he := false; i_ap := concat Ess |}
            | SExit => SExit | SPanic p => SPanic p end
  end.
Proof.
  rewrite <- (ptake_pdrop ls) at 1. rewrite labels_loop_app.
  rewrite (pass_loop A cfg true hy deny (ptake ls) s_start eq_refl (ptake_pass ls)). cbn [sbind].
  destruct (pdrop ls) as [|l rest] eqn:Ed; [reflexivity|].
  set (sp := pass_end s_start (ptake ls)).
  assert (HS : i_he sp = false /\ i_inpre sp = true /\ i_db sp = [] /\ i_ap sp = [] /\
               (if i_seen sp && i_inpre sp then i_ptu sp + 1 else i_ptu sp) = len (ptext (ptake ls))).
  { unfold sp, pass_end. destruct (ptake ls) as [|x xs]; [repeat split|].
    cbn [i_he i_inpre i_db i_ap i_seen i_ptu s_start andb]. repeat split. unfold ptext. rewrite len_app. unfold len at 3. cbn [length]. lia. }
  destruct HS as (S1 & S2 & S3 & S4 & S5).
  cbn [labels_loop proc_all]. rewrite (label_step_np l sp) by (try rewrite (pdrop_head ls l rest Ed), andb_false_r; try reflexivity; exact S1).
  destruct (pres l) as [[[X h] E]| |p] eqn:Ep; cbn [sbind]; [|reflexivity|reflexivity].
  pose proof (pres_he l X h E Ep) as ->. rewrite loop_np by reflexivity. cbn [i_ptu i_seen i_inpre i_db i_he i_ap].
  rewrite S5, S2, S3, S4. rewrite andb_false_r. cbn [app].
  destruct (proc_all rest) as [[Xs Ess]| |p]; [|reflexivity|reflexivity]. rewrite join_concat. reflexivity.
Qed.

(* the end of process_innermost after the label loop, as a function of the loop result (fail-fast, had_errors = false);
   the branch Err => IPanic 0 is copied from Model/Uts46.v *)
Definition finish (ptu : N) (db : list N) (ap : list aal) : inner_res :=
  match is_bidi A cfg db with
  | Panic p => IPanic p
  | Err => IPanic 0
  | Ok false => IRes ptu false false db ap
  | Ok true => match bidi_labels A true (split_on DOT db) false with
               | SExit => I_EXIT
               | SPanic p => IPanic p
               | SOk (ls, he) => IRes ptu true he (join_dots ls) ap
               end
  end.

Theorem inner_closed d : bytes d ->
  process_inner A cfg true hy deny d =
  match pdrop (split_on DOT d) with
  | [] => IRes (len d) false false [] []
  | rest => match proc_all rest with
            | SOk (Xs, Ess) => finish (len (ptext (ptake (split_on DOT d)))) (join_dots Xs) (concat Ess)
            | SExit => I_EXIT | SPanic p => IPanic p end
  end.
Proof.
  intros Hb. rewrite (inner_from_start A cfg true hy deny d Hb). unfold process_innermost. rewrite N.sub_diag. fold s_start.
  rewrite loop_start. destruct (pdrop (split_on DOT d)) as [|l rest] eqn:Ed.
  - pose proof (ptake_pdrop (split_on DOT d)) as E. rewrite Ed, app_nil_r in E. rewrite E.
    unfold pass_end. destruct (split_on DOT d) as [|x xs] eqn:Es; [exfalso; exact (Idna_WalkApi.split_on_ne d Es)|].
    cbn [i_db i_ptu i_he i_ap is_bidi s_start i_seen]. rewrite <- Es, join_split. f_equal.
  - destruct (proc_all (l :: rest)) as [[Xs Ess]| |p]; reflexivity.
Qed.

(* a pass-through label that is processed *)
Lemma pres_pass l : PassL l -> pres l = SOk (l, false, [MixedCaseAscii l]).
Proof.
  intros [Hb Hp]. destruct l as [|b r]; [reflexivity|]. cbn [pres].
  pose proof (passthrough_ascii _ Hb Hp) as Ha.
  assert (Han : an_label (b :: r)).
  { split; [exact Ha|]. destruct (has_punycode_prefix (b :: r)) eqn:E; [|reflexivity]. rewrite (prefix_not_pass _ Ha E) in Hp. discriminate. }
  rewrite (label_nonempty_an A cfg hy deny _ [] [] Han), (passthrough_acc deny HL hy _ Hb Hp).
  rewrite (cmap_clean deny _ (passthrough_clean deny _ HL Hb Hp)). reflexivity.
Qed.
Lemma proc_all_pass pl : Forall PassL pl -> proc_all pl = SOk (pl, map (fun l => [MixedCaseAscii l]) pl).
Proof. induction 1 as [|l r Hl _ IH]; [reflexivity|]. cbn [proc_all map]. rewrite (pres_pass l Hl), IH. reflexivity. Qed.
Lemma concat_mca pl : concat (map (fun l => [MixedCaseAscii l]) pl) = map MixedCaseAscii pl.
Proof. induction pl as [|l r IH]; [reflexivity|]. cbn [map concat app]. rewrite IH. reflexivity. Qed.

Lemma pres_ent l X h E : pres l = SOk (X, h, E) -> Forall (ent l) E.
Proof.
  destruct l as [|b r]; cbn [pres]; intros H.
  { inversion H. constructor; [left; reflexivity|constructor]. }
  set (l := b :: r) in *. rewrite (label_nonempty_eq A cfg) in H.
  destruct (split_ascii_fast_path_prefix l) as [asc non_ascii] eqn:Es.
  assert (HF : forall a n, complexF A cfg true hy deny [] false [] a n = SOk (X, h, E) -> Forall (ent l) E).
  { intros a n H0. unfold complexF in H0. apply sbind_ok in H0. destruct H0 as ([c1 h1] & _ & H0).
    destruct (split1 DOT (map (apply_lower deny) (map_normalize A (utf8_lossy n)))) as [s rest].
    apply (sublabels_ap A cfg) in H0. destruct H0 as (k & ->). cbn [app].
    constructor; [right; right; reflexivity|]. clear. induction k; cbn [repeat]; constructor; [right; right; reflexivity|assumption]. }
  destruct non_ascii as [|na nr]; [|exact (HF _ _ H)].
  pose proof (split_ascii_app _ _ _ Es) as Hlab. rewrite app_nil_r in Hlab. subst asc.
  destruct (has_punycode_prefix l).
  - destruct (negb match last_opt l with Some c => c =? HYPHEN | None => false end && (len l - 4 <=? PUNYCODE_DECODE_MAX_INPUT_LENGTH)); [|discriminate].
    destruct (decode_with cfg U8Internal (skipn 4 l)) as [decoded| |s]; try discriminate.
    apply sbind_ok in H. destruct H as ([c1 h1] & _ & H). apply sbind_ok in H. destruct H as ([c2 h2] & _ & H).
    inversion H. constructor; [right; left; reflexivity|constructor].
  - unfold complexT in H. apply sbind_ok in H. destruct H as ([c1 h1] & _ & H).
    apply sbind_ok in H. destruct H as ([c2 h2] & _ & H).
    destruct h2; inversion H; (constructor; [|constructor]); [right; right; reflexivity|left; reflexivity].
Qed.

Hypothesis Hcase : forall l l', ascii_case_variant l l' -> map_normalize A l = map_normalize A l'.

Lemma pres_cv l l' : cv l l' -> bytes l -> pres l' = relab l' (pres l).
Proof.
  intros H Hb. destruct l as [|b r].
  - apply cv_nil in H. subst l'. reflexivity.
  - destruct l' as [|b' r']; [apply cv_len in H; discriminate|]. cbn [pres].
    exact (label_nonempty_case A cfg deny HU HL Hcase true hy false _ _ H Hb).
Qed.

Theorem proc_all_cv ls ls' : Forall2 cv ls ls' -> Forall bytes ls -> forall Xs Ess, proc_all ls = SOk (Xs, Ess) ->
  exists Ess', proc_all ls' = SOk (Xs, Ess') /\ Forall2 ecase (concat Ess) (concat Ess').
Proof.
  induction 1 as [|l l' r r' Hl _ IH]; intros Hb Xs Ess H.
  - cbn [proc_all] in H. inversion H. exists []. split; [reflexivity|constructor].
  - inversion Hb as [|? ? Hb1 Hb2]; subst. cbn [proc_all] in H |- *.
    rewrite (pres_cv l l' Hl Hb1). destruct (pres l) as [[[X h] E]| |p] eqn:Ep; try discriminate.
    destruct (proc_all r) as [[Xa Ea]| |p] eqn:Er; try discriminate. inversion H. subst Xs Ess.
    destruct (IH Hb2 _ _ eq_refl) as (Ea' & E1 & E2). cbn [relab]. rewrite E1.
    exists (map (recase l') E :: Ea'). split; [reflexivity|]. cbn [concat]. apply Forall2_app; [|exact E2].
    pose proof (pres_ent l X h E Ep) as He. clear -He Hl. induction He as [|e es He1 _ IHe]; [constructor|].
    cbn [map]. constructor; [exact (ent_recase l l' e Hl He1)|exact IHe].
Qed.
End Loop.
