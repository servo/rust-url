(* Proofs/C01_KnownExact.v - the exact classes of Known_C01 (Model/KnownC01.v: computed on the raw text)
   against the recognisers on the Standard's side:
     - the cuts of the authority (k_apart, k_after_at, k_hrest, k_port_cut ...) ARE the cuts of
       Proofs/C01_EqAuthSpec.v (non-special) and Proofs/C01_EqSpSpec.v (special);
     - the path simulation on raw characters with one drive-letter flag per segment (k_path_ok) implies
       the test on the Standard's own state (spath_ok / spath_ok_s: percent-encoded buffer, segment list):
       the dot-segment tests do not see the percent-encoding of the path set, and an encoded segment that
       is drive-letter-shaped was so before encoding;
     - hence  k_auth T = 0 -> auth_class_ok T,  k_special R = 0 -> sp_class_ok (drop_sl R). *)
From Coq Require Import ZifyBool ZifyN.
From RU Require Import Base.Prelude Base.Utf8 Model.UrlRecord Model.Parser Model.KnownC01 Spec.Whatwg
  Proofs.C02_Path Proofs.C08_Input Proofs.C01_EqEnc Proofs.C01_EqRun Proofs.C01_EqDots Proofs.C01_EqPathSpec
  Proofs.C01_EqPath Proofs.C01_EqAuthSpec Proofs.C01_Tables Proofs.C01_EqClasses2 Proofs.C01_EqSpSpec
  Proofs.C01_EqSpPath Proofs.C01_EqSp.

Local Ltac Zify.zify_post_hook ::= Z.div_mod_to_equations.

(* the cuts *)
Lemma k_ae_false c : k_ae false c = is_ae c.
Proof. unfold k_ae, is_ae. cbn [andb]. apply orb_false_r. Qed.
Lemma k_ae_true c : k_ae true c = is_aes c.
Proof. reflexivity. Qed.
Lemma k_sl_eq c : k_sl c = is_sl c.
Proof. reflexivity. Qed.
Lemma k_sep_false c : k_sep false c = (c =? 47).
Proof. unfold k_sep. cbn [andb]. apply orb_false_r. Qed.
Lemma k_sep_true c : k_sep true c = is_sl c.
Proof. reflexivity. Qed.
Lemma k_qh_eq c : k_qh c = is_qh c.
Proof. reflexivity. Qed.

Lemma k_apart_false t : k_apart false t = a_part t.
Proof. induction t as [|c r IH]; [reflexivity|]. cbn [k_apart a_part]. rewrite k_ae_false, IH. reflexivity. Qed.
Lemma k_apart_true t : k_apart true t = as_part t.
Proof. induction t as [|c r IH]; [reflexivity|]. cbn [k_apart as_part]. rewrite k_ae_true, IH. reflexivity. Qed.
Lemma k_arest_false t : k_arest false t = a_rest t.
Proof. induction t as [|c r IH]; [reflexivity|]. cbn [k_arest a_rest]. rewrite k_ae_false, IH. reflexivity. Qed.
Lemma k_arest_true t : k_arest true t = as_rest t.
Proof. induction t as [|c r IH]; [reflexivity|]. cbn [k_arest as_rest]. rewrite k_ae_true, IH. reflexivity. Qed.
Lemma k_last_at_eq t : k_last_at t = last_at t.
Proof. induction t as [|c r IH]; [reflexivity|]. cbn [k_last_at last_at]. rewrite IH. reflexivity. Qed.

Lemma k_after_at_false T : k_after_at false T = snd (after_at T).
Proof.
  unfold k_after_at, after_at. rewrite k_apart_false, k_arest_false, k_last_at_eq.
  destruct (last_at (a_part T)) as [[w h]|]; reflexivity.
Qed.
Lemma k_after_at_true T : k_after_at true T = snd (after_at_s T).
Proof.
  unfold k_after_at, after_at_s. rewrite k_apart_true, k_arest_true, k_last_at_eq.
  destruct (last_at (as_part T)) as [[w h]|]; reflexivity.
Qed.

Lemma k_hrest_false t : forall br, k_hrest false br t = hs_rest br t.
Proof.
  induction t as [|c r IH]; intros br; [reflexivity|]. cbn [k_hrest hs_rest].
  unfold k_hstop, hs_stop. rewrite k_ae_false. change (k_br_next br c) with (br_next br c). rewrite IH. reflexivity.
Qed.
Lemma k_hrest_true t : forall br, k_hrest true br t = hss_rest br t.
Proof.
  induction t as [|c r IH]; intros br; [reflexivity|]. cbn [k_hrest hss_rest].
  unfold k_hstop, hss_stop. rewrite k_ae_true. change (k_br_next br c) with (br_next br c). rewrite IH. reflexivity.
Qed.
Lemma k_digits_eq t : k_digits t = digits_of t.
Proof. induction t as [|c r IH]; [reflexivity|]. cbn [k_digits digits_of]. rewrite IH. reflexivity. Qed.
Lemma k_after_digits_eq t : k_after_digits t = after_digits t.
Proof. induction t as [|c r IH]; [reflexivity|]. cbn [k_after_digits after_digits]. rewrite IH. reflexivity. Qed.
Lemma k_dec_eq s : k_dec s = decimal_value s.
Proof. reflexivity. Qed.
Lemma k_drop_sl_eq t : k_drop_sl t = drop_sl t.
Proof.
  unfold drop_sl. induction t as [|c r IH]; [reflexivity|]. cbn [k_drop_sl drop_leading].
  rewrite k_sl_eq, IH. reflexivity.
Qed.

(* the port cut in terms of port_split / after_digits *)
Lemma k_port_cut_split X :
  match X with
  | c :: r => if c =? 58 then (Some (k_digits r), k_after_digits r) else (None, c :: r)
  | [] => (None, [])
  end = match port_split X with
        | Some PR => (Some (digits_of PR), after_digits PR)
        | None => (None, X)
        end.
Proof.
  destruct X as [|c r]; [reflexivity|]. cbn [port_split]. destruct (c =? 58); [|reflexivity].
  rewrite k_digits_eq, k_after_digits_eq. reflexivity.
Qed.

Lemma k_port_cut_false T :
  k_port_cut false T = match port_split (hs_rest false (snd (after_at T))) with
                       | Some PR => (Some (digits_of PR), after_digits PR)
                       | None => (None, hs_rest false (snd (after_at T)))
                       end.
Proof. unfold k_port_cut. rewrite k_after_at_false, k_hrest_false. apply k_port_cut_split. Qed.
Lemma k_port_cut_true T :
  k_port_cut true T = match port_split (hss_rest false (snd (after_at_s T))) with
                      | Some PR => (Some (digits_of PR), after_digits PR)
                      | None => (None, hss_rest false (snd (after_at_s T)))
                      end.
Proof. unfold k_port_cut. rewrite k_after_at_true, k_hrest_true. apply k_port_cut_split. Qed.

Lemma k_path_text_false T : snd (k_port_cut false T) = auth_path_text T.
Proof.
  rewrite k_port_cut_false. unfold auth_path_text.
  destruct (port_split (hs_rest false (snd (after_at T)))); reflexivity.
Qed.
Lemma k_path_text_true T : snd (k_port_cut true T) = sp_path_text T.
Proof.
  rewrite k_port_cut_true. unfold sp_path_text.
  destruct (port_split (hss_rest false (snd (after_at_s T)))); reflexivity.
Qed.
Lemma k_port_bslash T :
  match fst (k_port_cut false T) with
  | Some ds => (k_dec ds <=? 65535) && match snd (k_port_cut false T) with c :: _ => c =? 92 | [] => false end
  | None => false
  end = auth_port_bslash T.
Proof.
  rewrite k_port_cut_false. unfold auth_port_bslash.
  destruct (port_split (hs_rest false (snd (after_at T)))) as [PR|]; [|reflexivity]. cbn [fst snd].
  rewrite k_dec_eq. reflexivity.
Qed.

(* the percent-encoding of the path set and the dot-segment tests *)
(* an encoded code point is itself, or "%HL..." where "%HL" is not a spelling of "%2e" *)
Lemma enc_cp_shape c : utf8_percent_encode_cp in_path_set c = [c]
  \/ exists h l tl, utf8_percent_encode_cp in_path_set c = 37 :: h :: l :: tl /\ is_pct2e 37 h l = false.
Proof.
  unfold utf8_percent_encode_cp. destruct (in_path_set c) eqn:Es; [|left; reflexivity]. right.
  unfold utf8_encode. cbn [flat_map]. rewrite app_nil_r.
  assert (exists b bs, utf8_encode1 c = b :: bs /\ (b = c /\ c < 128 \/ 192 <= b)) as (b & bs & E & Hb).
  { unfold utf8_encode1. destruct (c <? 128) eqn:E1; [exists c, []; split; [reflexivity | left; lia]|].
    destruct (c <? 2048); [eexists; eexists; split; [reflexivity | right; lia]|].
    destruct (c <? 65536); eexists; eexists; (split; [reflexivity | right; lia]). }
  rewrite E. cbn [flat_map percent_encode_byte app]. eexists. eexists. eexists. split; [reflexivity|].
  unfold is_pct2e, hex_upper. destruct Hb as [[-> Hc]|Hb].
  - unfold in_path_set, in_query_set, in_c0_control_set, is_c0_control in Es. cbn [memb] in Es.
    destruct (c / 16 <? 10) eqn:E1; destruct (c mod 16 <? 10) eqn:E2; lia.
  - destruct (b / 16 <? 10) eqn:E1; destruct (b mod 16 <? 10) eqn:E2; lia.
Qed.

(* the encoded string is the string itself, or contains a "%HL" that is not "%2e" *)
Lemma enc_id_or_bad B : upe in_path_set B = B
  \/ exists p h l r, upe in_path_set B = p ++ 37 :: h :: l :: r /\ is_pct2e 37 h l = false.
Proof.
  induction B as [|c B IH]; [left; reflexivity|]. rewrite upe_cons.
  destruct (enc_cp_shape c) as [E|(h & l & tl & E & Hn)]; rewrite E.
  - destruct IH as [IH|(p & h & l & r & IH & Hn)].
    + left. rewrite IH. reflexivity.
    + right. exists (c :: p), h, l, r. rewrite IH. split; [reflexivity | exact Hn].
  - right. exists [], h, l, (tl ++ upe in_path_set B). split; [reflexivity | exact Hn].
Qed.

(* in a dot segment every '%' starts a "%2e" *)
Lemma single_dot_pct p h l r : is_single_dot' (p ++ 37 :: h :: l :: r) = true -> is_pct2e 37 h l = true.
Proof.
  destruct p as [|p1 [|p2 [|p3 [|p4 p]]]]; destruct r as [|r1 [|r2 r]]; cbn [app is_single_dot'];
    try discriminate; unfold is_pct2e; lia.
Qed.
Lemma double_dot_pct p h l r : is_double_dot' (p ++ 37 :: h :: l :: r) = true -> is_pct2e 37 h l = true.
Proof.
  destruct p as [|p1 [|p2 [|p3 [|p4 [|p5 [|p6 [|p7 p]]]]]]]; destruct r as [|r1 [|r2 [|r3 [|r4 r]]]]; cbn [app is_double_dot'];
    try discriminate; unfold is_pct2e; lia.
Qed.

(* the characters of dot segments are not in the path percent-encode set *)
Definition dotc (c : N) : bool := (c =? 46) || (c =? 37) || (c =? 50) || (c =? 101) || (c =? 69).
Lemma dotc_enc c : dotc c = true -> utf8_percent_encode_cp in_path_set c = [c].
Proof.
  intros H. unfold utf8_percent_encode_cp.
  assert (in_path_set c = false) as ->; [|reflexivity].
  unfold dotc in H. unfold in_path_set, in_query_set, in_c0_control_set, is_c0_control. cbn [memb]. lia.
Qed.
Lemma dotc_upe B : forallb dotc B = true -> upe in_path_set B = B.
Proof.
  induction B as [|c B IH]; [reflexivity|]. cbn [forallb]. intros H. apply andb_true_iff in H. destruct H as [H1 H2].
  rewrite upe_cons, (dotc_enc c H1), (IH H2). reflexivity.
Qed.
Lemma single_dot_dotc s : is_single_dot' s = true -> forallb dotc s = true.
Proof.
  destruct s as [|a [|b [|c [|d r]]]]; cbn [is_single_dot' forallb]; try discriminate; unfold dotc, is_pct2e; lia.
Qed.
Lemma double_dot_dotc s : is_double_dot' s = true -> forallb dotc s = true.
Proof.
  destruct s as [|a [|b [|c [|d [|e [|f [|g r]]]]]]]; cbn [is_double_dot' forallb]; try discriminate; unfold dotc, is_pct2e; lia.
Qed.

Lemma single_dot_enc B : is_single_dot_segment (upe in_path_set B) = is_single_dot B.
Proof.
  rewrite is_single_dot_segment_eq, is_single_dot_eq.
  destruct (enc_id_or_bad B) as [E|(p & h & l & r & E & Hn)]; [rewrite E; reflexivity|].
  assert (is_single_dot' (upe in_path_set B) = false) as ->.
  { destruct (is_single_dot' (upe in_path_set B)) eqn:K; [|reflexivity]. rewrite E in K.
    rewrite (single_dot_pct _ _ _ _ K) in Hn. discriminate Hn. }
  destruct (is_single_dot' B) eqn:K; [|reflexivity].
  rewrite (dotc_upe B (single_dot_dotc B K)) in E. rewrite E in K.
  rewrite (single_dot_pct _ _ _ _ K) in Hn. discriminate Hn.
Qed.
Lemma double_dot_enc B : is_double_dot_segment (upe in_path_set B) = is_double_dot B.
Proof.
  rewrite is_double_dot_segment_eq, is_double_dot_eq.
  destruct (enc_id_or_bad B) as [E|(p & h & l & r & E & Hn)]; [rewrite E; reflexivity|].
  assert (is_double_dot' (upe in_path_set B) = false) as ->.
  { destruct (is_double_dot' (upe in_path_set B)) eqn:K; [|reflexivity]. rewrite E in K.
    rewrite (double_dot_pct _ _ _ _ K) in Hn. discriminate Hn. }
  destruct (is_double_dot' B) eqn:K; [|reflexivity].
  rewrite (dotc_upe B (double_dot_dotc B K)) in E. rewrite E in K.
  rewrite (double_dot_pct _ _ _ _ K) in Hn. discriminate Hn.
Qed.

(* an encoded segment that is drive-letter-shaped was so before encoding *)
Lemma upe_cp_shape' c : utf8_percent_encode_cp in_path_set c = [c]
  \/ exists h l tl, utf8_percent_encode_cp in_path_set c = 37 :: h :: l :: tl.
Proof. destruct (enc_cp_shape c) as [E|(h & l & tl & E & _)]; [left; exact E | right; eauto]. Qed.

Lemma wdl_enc_raw B : starts_with_wdl (upe in_path_set B ++ [47]) = true -> k_wdl B = true.
Proof.
  unfold k_wdl. intros H. destruct B as [|x rest1]; [discriminate H|].
  rewrite upe_cons in H.
  destruct (upe_cp_shape' x) as [Ex|(h & l & tl & Ex)]; rewrite Ex in H.
  2:{ exfalso. cbn [app starts_with_wdl] in H. replace (is_alpha 37) with false in H by reflexivity. discriminate H. }
  destruct rest1 as [|y rest2].
  { exfalso. cbn [upe utf8_percent_encode flat_map app starts_with_wdl] in H.
    replace ((47 =? 58) || (47 =? 124)) with false in H by reflexivity. rewrite andb_false_r in H. discriminate H. }
  rewrite upe_cons in H.
  destruct (upe_cp_shape' y) as [Ey|(h & l & tl & Ey)]; rewrite Ey in H.
  2:{ exfalso. cbn [app starts_with_wdl] in H. replace ((37 =? 58) || (37 =? 124)) with false in H by reflexivity.
      rewrite andb_false_r in H. discriminate H. }
  destruct rest2 as [|z rest3].
  { cbn [upe utf8_percent_encode flat_map app starts_with_wdl] in H. cbn [app starts_with_wdl]. exact H. }
  rewrite upe_cons in H.
  destruct (upe_cp_shape' z) as [Ez|(h & l & tl & Ez)]; rewrite Ez in H; cbn [app starts_with_wdl] in H; cbn [app starts_with_wdl].
  - exact H.
  - exfalso. replace (is_path_end 37) with false in H by reflexivity. rewrite andb_false_r in H. discriminate H.
Qed.

(* the flags against the Standard's segment list *)
Definition wrel (P : list (list N)) (W : list bool) : Prop :=
  Forall2 (fun s w => starts_with_wdl (s ++ [47]) = true -> w = true) P W.

Lemma snoc_case {A} (l : list A) : l = [] \/ exists l' x, l = l' ++ [x].
Proof.
  destruct l as [|a l]; [left; reflexivity|]. right.
  assert (a :: l <> []) as Hne by discriminate. exists (removelast (a :: l)), (last (a :: l) a).
  apply app_removelast_last. exact Hne.
Qed.

Lemma wrel_nil : wrel [] [].
Proof. constructor. Qed.
Lemma wrel_snoc P W s w : wrel P W -> (starts_with_wdl (s ++ [47]) = true -> w = true) -> wrel (P ++ [s]) (W ++ [w]).
Proof. intros H1 H2. apply Forall2_app; [exact H1|]. constructor; [exact H2 | constructor]. Qed.
Lemma wrel_snoc_inv P s W : wrel (P ++ [s]) W ->
  exists W' w, W = W' ++ [w] /\ wrel P W' /\ (starts_with_wdl (s ++ [47]) = true -> w = true).
Proof.
  intros H. apply Forall2_app_inv_l in H. destruct H as (W1 & W2 & H1 & H2 & ->).
  inversion H2 as [|? w ? W3 Hw H3]; subst. inversion H3; subst. exists W1, w. repeat split; assumption.
Qed.
Lemma wrel_nil_inv W : wrel [] W -> W = [].
Proof. intros H. inversion H. reflexivity. Qed.

Lemma wrel_removelast P W : wrel P W -> wrel (removelast P) (removelast W).
Proof.
  intros H. destruct (snoc_case P) as [->|(P' & s & ->)].
  - rewrite (wrel_nil_inv W H). exact wrel_nil.
  - destruct (wrel_snoc_inv P' s W H) as (W' & w & -> & H1 & _). rewrite !removelast_last. exact H1.
Qed.
Lemma wrel_last P W : wrel P W -> last_is_wdl P = true -> k_last W = true.
Proof.
  intros H. unfold last_is_wdl, k_last. destruct (snoc_case P) as [->|(P' & s & ->)]; [discriminate|].
  destruct (wrel_snoc_inv P' s W H) as (W' & w & -> & _ & Hw). rewrite !rev_unit. exact Hw.
Qed.

Lemma wrel_fin_ok P W B : wrel P W -> k_fin_ok W B = true -> fin_ok P (upe in_path_set B) = true.
Proof.
  intros H K. unfold fin_ok, k_fin_ok in *. rewrite double_dot_enc.
  destruct (is_double_dot B); [|reflexivity]. cbn [andb] in *.
  destruct (last_is_wdl P) eqn:E; [|reflexivity]. rewrite (wrel_last P W H E) in K. exact K.
Qed.
Lemma wrel_fin P W B sep : wrel P W -> wrel (fin P (upe in_path_set B) sep) (k_fin W B sep).
Proof.
  intros H. unfold fin, k_fin. rewrite double_dot_enc, single_dot_enc.
  pose proof (wrel_removelast P W H) as HR.
  destruct (is_double_dot B).
  { destruct sep; [exact HR|]. apply wrel_snoc; [exact HR | discriminate]. }
  destruct (is_single_dot B).
  { destruct sep; [exact H|]. apply wrel_snoc; [exact H | discriminate]. }
  apply wrel_snoc; [exact H | apply wdl_enc_raw].
Qed.

Lemma upe_snoc B c : upe in_path_set B ++ utf8_percent_encode_cp in_path_set c = upe in_path_set (B ++ [c]).
Proof. rewrite upe_app. cbn [upe utf8_percent_encode flat_map]. rewrite app_nil_r. reflexivity. Qed.

(* the raw simulation implies the test on the Standard's state, for either kind of URL: `sepf` is the separator test
   on the Standard's side *)
Theorem k_path_ok_any sp sepf t : (forall c, k_sep sp c = sepf c) -> forall P W B, wrel P W ->
  k_path_ok sp t W B = true -> spath_ok_g sepf t P (upe in_path_set B) = true.
Proof.
  intros Hs. induction t as [|c r IH]; intros P W B H K; cbn [k_path_ok spath_ok_g] in *.
  - exact (wrel_fin_ok P W B H K).
  - rewrite Hs in K. destruct (sepf c).
    + apply andb_true_iff in K. destruct K as [K1 K2]. rewrite (wrel_fin_ok P W B H K1). cbn [andb].
      change (@nil N) with (upe in_path_set []). apply (IH _ (k_fin W B true) []); [apply wrel_fin; exact H | exact K2].
    + rewrite k_qh_eq in K. change (C01_EqRun.is_qh c) with (is_qh c). destruct (is_qh c).
      * exact (wrel_fin_ok P W B H K).
      * rewrite upe_snoc. exact (IH P W (B ++ [c]) H K).
Qed.

Theorem k_path_ok_spath t : forall P W B, wrel P W ->
  k_path_ok false t W B = true -> spath_ok t P (upe in_path_set B) = true.
Proof. exact (k_path_ok_any false (fun c => c =? 47) t k_sep_false). Qed.

Theorem k_path_ok_spath_s t : forall P W B, wrel P W ->
  k_path_ok true t W B = true -> spath_ok_s t P (upe in_path_set B) = true.
Proof. exact (k_path_ok_any true is_sl t k_sep_true). Qed.

Corollary k_path_ok_spath0 t : k_path_ok false t [] [] = true -> spath_ok t [] [] = true.
Proof. exact (k_path_ok_spath t [] [] [] wrel_nil). Qed.
Corollary k_path_ok_spath_s0 t : k_path_ok true t [] [] = true -> spath_ok_s t [] [] = true.
Proof. exact (k_path_ok_spath_s t [] [] [] wrel_nil). Qed.

(* the two authority recognisers *)
Theorem k_auth_class_ok T : k_auth T = 0 -> auth_class_ok T = true.
Proof.
  unfold k_auth, auth_class_ok. rewrite k_port_bslash, k_apart_false, k_path_text_false. intros H.
  destruct (auth_path_text T) as [|c r] eqn:EX.
  - destruct (auth_port_bslash T); [discriminate H|]. destruct (list_eqb (a_part T) [58; 64]); [discriminate H | reflexivity].
  - destruct (c =? 47) eqn:E47; cbn [andb] in H.
    + destruct (k_path_ok false r [] []) eqn:Ep; [|discriminate H]. cbn [negb] in H.
      destruct (auth_port_bslash T); [discriminate H|]. destruct (list_eqb (a_part T) [58; 64]); [discriminate H|].
      cbn [negb andb]. exact (k_path_ok_spath0 r Ep).
    + destruct (auth_port_bslash T); [discriminate H|]. destruct (list_eqb (a_part T) [58; 64]); [discriminate H | reflexivity].
Qed.

Theorem k_special_class_ok R : k_special R = 0 -> sp_class_ok (drop_sl R) = true.
Proof.
  unfold k_special, sp_class_ok. rewrite k_drop_sl_eq, k_path_text_true. intros H.
  set (X := sp_path_text (drop_sl R)) in *.
  assert (match X with [] => true | c :: _ => k_ae true c end = starts_aes X) as E1 by (destruct X; reflexivity).
  assert (match X with c :: r => if k_sl c then r else X | [] => [] end = path_text_s X) as E2 by (destruct X; reflexivity).
  rewrite E1, E2 in H. destruct (starts_aes X); [|reflexivity]. cbn [negb orb andb] in *.
  destruct (k_path_ok true (path_text_s X) [] []) eqn:Ep; [|discriminate H].
  exact (k_path_ok_spath_s0 _ Ep).
Qed.

(* the segments of the serialized base path *)
Lemma k_split_flat P : forall cur s, no_slash s = true -> forallb no_slash P = true ->
  k_split_from cur (s ++ flat_map (fun x => 47 :: x) P) = (cur ++ s) :: P.
Proof.
  induction P as [|s' P IH]; intros cur s Hs HP.
  - cbn [flat_map]. rewrite app_nil_r. revert cur. induction s as [|c s IHs]; intros cur; [rewrite app_nil_r; reflexivity|].
    cbn [no_slash forallb] in Hs. apply andb_true_iff in Hs. destruct Hs as [Hc Hs].
    cbn [app k_split_from]. apply negb_true_iff in Hc. rewrite Hc. rewrite (IHs Hs). rewrite <- app_assoc. reflexivity.
  - cbn [forallb] in HP. apply andb_true_iff in HP. destruct HP as [Hs' HP].
    revert cur. induction s as [|c s IHs]; intros cur.
    + cbn [app flat_map k_split_from]. replace (47 =? 47) with true by reflexivity. rewrite app_nil_r.
      rewrite (IH [] s' Hs' HP). reflexivity.
    + cbn [no_slash forallb] in Hs. apply andb_true_iff in Hs. destruct Hs as [Hc Hs].
      cbn [app k_split_from]. apply negb_true_iff in Hc. rewrite Hc. rewrite (IHs Hs). rewrite <- app_assoc. reflexivity.
Qed.

Lemma wrel_map P : wrel P (map k_wdl P).
Proof. induction P as [|s P IH]; [constructor|]. cbn [map]. constructor; [intros H; exact H | exact IH]. Qed.

(* Known_C01 read on the Standard's scheme scan *)
Lemma scheme_cp_not_colon c : is_scheme_cp c = true -> (c =? 58) = false.
Proof. unfold is_scheme_cp, is_alnum, is_alpha, is_upper, is_lower, is_digit. intros H. lia. Qed.

Lemma scheme_scan_leading t : forall buf sch R, scheme_scan buf t = Some (sch, R) ->
  leading_scheme_loop (rev buf) t = Some sch /\ after_colon t = R.
Proof.
  induction t as [|c r IH]; intros buf sch R H; [discriminate H|]. cbn [scheme_scan] in H.
  cbn [leading_scheme_loop after_colon]. change (is_alnum c || (c =? 43) || (c =? 45) || (c =? 46)) with (is_scheme_cp c).
  destruct (is_scheme_cp c) eqn:Ec.
  - rewrite (scheme_cp_not_colon c Ec). specialize (IH _ _ _ H). rewrite rev_app_distr in IH. exact IH.
  - destruct (c =? 58); [|discriminate H]. inversion H; subst. rewrite rev_involutive. split; reflexivity.
Qed.

Lemma scheme_scan_none_leading t : forall buf, scheme_scan buf t = None -> leading_scheme_loop (rev buf) t = None.
Proof.
  induction t as [|c r IH]; intros buf H; [reflexivity|]. cbn [scheme_scan] in H. cbn [leading_scheme_loop].
  change (is_alnum c || (c =? 43) || (c =? 45) || (c =? 46)) with (is_scheme_cp c).
  destruct (is_scheme_cp c) eqn:Ec.
  - specialize (IH _ H). rewrite rev_app_distr in IH. exact IH.
  - destruct (c =? 58); [discriminate H | reflexivity].
Qed.

Lemma spec_scheme_none_leading t : spec_scheme t = None -> leading_scheme t = None.
Proof.
  unfold spec_scheme, leading_scheme. destruct t as [|c r]; [reflexivity|].
  destruct (is_alpha c); [|reflexivity]. exact (scheme_scan_none_leading (c :: r) []).
Qed.

Lemma spec_scheme_some_leading t sch R : spec_scheme t = Some (sch, R) -> leading_scheme t = Some sch /\ after_colon t = R.
Proof.
  unfold spec_scheme, leading_scheme. destruct t as [|c r]; [discriminate|].
  destruct (is_alpha c); [|discriminate]. exact (scheme_scan_leading (c :: r) [] sch R).
Qed.

Lemma special_name sch : is_special_scheme_name sch = is_special_scheme sch.
Proof. unfold is_special_scheme_name. apply special_schemes_are_the_standards. Qed.

Lemma cleaned_spec_clean input : cleaned input = spec_clean input.
Proof. change (cleaned input) with (ntnl (input_new_trim_c0 input)). symmetry. apply spec_clean_is_ntnl_trim. Qed.

(* no base, a scheme *)
Lemma known_exact_nobase input sch R :
  spec_scheme (spec_clean input) = Some (sch, R) -> known_c01_v1 None input = 0 ->
  list_eqb sch str_file = false /\ k_absolute (is_special_scheme sch) R = 0.
Proof.
  intros Hs Hk. unfold known_c01_v1 in Hk. cbv zeta in Hk. rewrite cleaned_spec_clean in Hk.
  destruct (spec_scheme_some_leading _ _ _ Hs) as [E1 E2]. rewrite E1, E2 in Hk.
  change s_file with str_file in Hk. rewrite special_name in Hk.
  destruct (list_eqb sch str_file); [discriminate Hk|]. cbn [orb andb] in Hk. split; [reflexivity | exact Hk].
Qed.

(* a base, no scheme in the reference: the reference is bare (empty, '?...', '#...'), or the base is not
   file and the reference is outside classes 2-4 *)
Lemma known_exact_base_noscheme b input :
  spec_scheme (spec_clean input) = None -> known_c01_v1 (Some b) input = 0 ->
  k_bare_ref (spec_clean input) = true
  \/ (list_eqb (b_scheme b) str_file = false
      /\ k_relative (is_special_scheme (b_scheme b)) b (spec_clean input) = 0).
Proof.
  intros Hs Hk. unfold known_c01_v1 in Hk. cbv zeta in Hk. rewrite cleaned_spec_clean in Hk.
  rewrite (spec_scheme_none_leading _ Hs) in Hk.
  change s_file with str_file in Hk. rewrite special_name in Hk.
  destruct (k_bare_ref (spec_clean input)); [left; reflexivity | right].
  destruct (list_eqb (b_scheme b) str_file); [discriminate Hk|]. cbn [orb andb] in Hk. split; [reflexivity | exact Hk].
Qed.

(* a base, a scheme in the reference *)
Lemma known_exact_base_scheme b input sch R :
  spec_scheme (spec_clean input) = Some (sch, R) -> known_c01_v1 (Some b) input = 0 ->
  list_eqb sch str_file = false
  /\ (if is_special_scheme sch && list_eqb sch (b_scheme b) && negb (k_two_sl R)
      then k_relative (is_special_scheme sch) b R else k_absolute (is_special_scheme sch) R) = 0.
Proof.
  intros Hs Hk. unfold known_c01_v1 in Hk. cbv zeta in Hk. rewrite cleaned_spec_clean in Hk.
  destruct (spec_scheme_some_leading _ _ _ Hs) as [E1 E2]. rewrite E1, E2 in Hk.
  change s_file with str_file in Hk. rewrite special_name in Hk.
  destruct (list_eqb sch str_file); [discriminate Hk|]. cbn [orb andb] in Hk. split; [reflexivity | exact Hk].
Qed.

(* with a scheme of its own and the base ignored, the base does not matter to Known_C01 *)
Lemma known_exact_absolute b input sch R :
  spec_scheme (spec_clean input) = Some (sch, R) ->
  is_special_scheme sch && list_eqb sch (b_scheme b) && negb (k_two_sl R) = false ->
  known_c01_v1 (Some b) input = 0 -> known_c01_v1 None input = 0.
Proof.
  intros Hs Hi Hk. destruct (known_exact_base_scheme b input sch R Hs Hk) as [Hf Hr]. rewrite Hi in Hr.
  unfold known_c01_v1. cbv zeta. rewrite cleaned_spec_clean.
  destruct (spec_scheme_some_leading _ _ _ Hs) as [E1 E2]. rewrite E1, E2.
  change s_file with str_file. rewrite special_name, Hf. cbn [orb andb]. exact Hr.
Qed.
