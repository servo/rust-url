(* Proofs/C06_PushCanon.v - path_segments_mut sessions of clear / push / extend on the canonical records with an
   authority (C02's Canon, both classes) stay canonical: the exact evaluation of Proofs/C06_SegPush.v turns the
   session into an operation on the canonical path (segments, last segment); a pushed segment that is not skipped is a
   good segment of the class (clean for PATH, no '/', no '\' for special schemes, not a dot segment).  Hence such
   sessions can be steps of the histories of C06_all (ReachC6p below). *)
From RU Require Import Base.Prelude Base.Utf8 Base.Utf8Facts Model.AsciiSet Gen.Tables
  Model.PercentEncoding Model.HostT Model.UrlRecord Model.Parser Model.Setters Model.WF
  Proofs.ListN Proofs.C03_WF Proofs.C06_List Proofs.C06_WFI Proofs.C06_Suffix Proofs.C06_PathParser Proofs.C06_Path
  Proofs.C14_Set Proofs.C14_Enc Proofs.C14_Views Proofs.C02_Enc Proofs.C02_Parts
  Proofs.C02_Opaque Proofs.C02_Path Proofs.C02_PathL1 Proofs.C02_Reach Proofs.C16_RT Proofs.C02_AuthParts
  Proofs.C02_Auth Proofs.C02_AuthWf Proofs.C02_PathSp Proofs.C02_AuthSp Proofs.C02_AuthMain Proofs.C02_SetQF
  Proofs.C02_Canon Proofs.C02_SetPort
  Proofs.C06_Agree Proofs.C06_AgreeUrl Proofs.C06_Splice Proofs.C06_SpliceAuth Proofs.C06_SpliceCred Proofs.C06_SplicePath
  Proofs.C06_FragQuery Proofs.C06_Segments Proofs.C06_SegPush.
Open Scope N_scope.
Open Scope list_scope.

(* a pushed segment is a good segment *)
Lemma seg_set_kept_sweep :
  all_below 256 (fun b => should_encode T_PATH_SEGMENT b || kept T_PATH b) = true
  /\ all_below 256 (fun b => should_encode T_SPECIAL_PATH_SEGMENT b || kept T_PATH b) = true.
Proof. split; vm_compute; reflexivity. Qed.

Lemma seg_set_kept st b : b < 256 -> should_encode (seg_set st) b = false -> kept T_PATH b = true.
Proof.
  intros Hb H. destruct seg_set_kept_sweep as [S1 S2]. unfold seg_set, path_set in H. cbn [ctx_eqb] in H.
  destruct (st_is_special st).
  - pose proof (all_below_spec 256 _ S2 b Hb) as G. cbv beta in G. rewrite H in G. exact G.
  - pose proof (all_below_spec 256 _ S1 b Hb) as G. cbv beta in G. rewrite H in G. exact G.
Qed.

Lemma path_hex_facts : kept T_PATH 37 = true /\ all_below 16 (fun d => kept T_PATH (hex_upper d)) = true
  /\ all_below 16 (fun d => negb (hex_upper d =? 47) && negb (hex_upper d =? 92)) = true.
Proof. repeat split; vm_compute; reflexivity. Qed.

Lemma seg_set_92 st : st_is_special st = true -> should_encode (seg_set st) 92 = true.
Proof. intros H. unfold seg_set, path_set. cbn [ctx_eqb]. rewrite H. vm_compute. reflexivity. Qed.

Lemma seg_text_good st seg : usv_list seg -> seg_skipped (strip_tnl seg) = false ->
  good_seg (seg_text st seg) = true /\ (st_is_special st = true -> good_seg_sp (seg_text st seg) = true).
Proof.
  intros Hu Hk. destruct (seg_text_not_dots st seg Hu Hk) as [Hdd Hsd].
  destruct (seg_set_facts st) as (F37 & F46 & F47). destruct path_hex_facts as (P37 & Phex & Phex2).
  pose proof (utf8_encode_bytes _ (strip_tnl_usv seg Hu)) as Hb.
  assert (clean T_PATH (seg_text st seg) = true) as C1.
  { unfold clean, seg_text. apply encode_forallb; [exact P37 | intros d Hd; exact (all_below_spec 16 _ Phex d Hd) | | exact Hb].
    apply Forall_forall. intros b Hin E. apply (seg_set_kept st); [|exact E].
    unfold bytes in Hb. rewrite Forall_forall in Hb. exact (Hb b Hin). }
  assert (no_slash (seg_text st seg) = true) as C2.
  { unfold no_slash, seg_text. apply encode_forallb; [reflexivity | | | exact Hb].
    - intros d Hd. pose proof (all_below_spec 16 _ Phex2 d Hd) as G. cbv beta in G. apply andb_true_iff in G. tauto.
    - apply Forall_forall. intros b _ E. destruct (b =? 47) eqn:E47; [|reflexivity]. apply N.eqb_eq in E47. subst b. congruence. }
  assert (good_seg (seg_text st seg) = true) as G by (unfold good_seg; rewrite C1, C2, Hdd, Hsd; reflexivity).
  split; [exact G|]. intros Hsp. unfold good_seg_sp. rewrite G. cbn [andb].
  unfold no_byte, seg_text. apply encode_forallb; [reflexivity | | | exact Hb].
  - intros d Hd. pose proof (all_below_spec 16 _ Phex2 d Hd) as G2. cbv beta in G2. apply andb_true_iff in G2. tauto.
  - apply Forall_forall. intros b _ E. destruct (b =? 92) eqn:E92; [|reflexivity]. apply N.eqb_eq in E92. subst b.
    rewrite (seg_set_92 st Hsp) in E. discriminate.
Qed.

Definition pth_push (p : pth) (E : list N) : pth :=
  match p with
  | None => Some ([], E)
  | Some ([], []) => Some ([], E)
  | Some (segs, last) => Some (segs ++ [last], E)
  end.
Definition pth_clear (p : pth) : pth := match p with None => None | Some _ => Some ([], []) end.

Lemma segs_text_snoc segs s : segs_text (segs ++ [s]) = segs_text segs ++ s ++ [47].
Proof. unfold segs_text. rewrite map_app, concat_app. cbn [map concat]. rewrite app_nil_r. reflexivity. Qed.

Lemma push_text_pth st p seg : seg_skipped (strip_tnl seg) = false ->
  push_text st (pth_text p) seg = pth_text (pth_push p (seg_text st seg)).
Proof.
  intros Hk. unfold push_text. rewrite Hk. destruct p as [[segs last]|]; cbn [pth_text pth_push].
  - destruct segs as [|s segs'].
    + destruct last as [|c last'].
      * reflexivity.
      * assert (1 <= nlen (c :: last')) as Hl by (rewrite nlen_cons; lia).
        generalize dependent (c :: last'). intros l Hl.
        cbn [pth_text]. unfold C02_Path.path_text. cbn [segs_text map concat app].
        replace ((1 <? nlen (47 :: l)) || (nlen (47 :: l) =? 0)) with true
          by (rewrite nlen_cons; symmetry; apply orb_true_iff; left; apply N.ltb_lt; lia).
        cbn [app]. rewrite ?app_nil_r. rewrite <- ?app_assoc. reflexivity.
    + assert (1 <= nlen (segs_text (s :: segs'))) as Hl
        by (unfold segs_text; cbn [map concat]; rewrite !nlen_app; change (nlen [47]) with 1; lia).
      change (s :: segs' ++ [last]) with ((s :: segs') ++ [last]).
      generalize dependent (s :: segs'). intros sg Hl.
      cbn [pth_text]. unfold C02_Path.path_text. rewrite segs_text_snoc.
      replace ((1 <? nlen (47 :: segs_text sg ++ last)) || (nlen (47 :: segs_text sg ++ last) =? 0)) with true
        by (rewrite nlen_cons, nlen_app; symmetry; apply orb_true_iff; left; apply N.ltb_lt; lia).
      cbn [app]. rewrite <- ?app_assoc. reflexivity.
  - reflexivity.
Qed.

Lemma clear_text_pth p : clear_text (pth_text p) = pth_text (pth_clear p).
Proof. destruct p as [[segs last]|]; reflexivity. Qed.

Definition auth_cls := C06_SpliceAuth.auth_cls.

Lemma forallb_snoc {A} (f : A -> bool) l x : forallb f (l ++ [x]) = forallb f l && f x.
Proof. rewrite forallb_app. cbn [forallb]. rewrite andb_true_r. reflexivity. Qed.

Lemma pth_push_cls st p E : auth_cls st p -> good_seg E = true -> (st_is_special st = true -> good_seg_sp E = true) ->
  auth_cls st (pth_push p E).
Proof.
  intros [[-> Hp]|[-> Hp]] G Gsp.
  - left. split; [reflexivity|]. destruct p as [[segs last]|]; cbn [pth_push].
    + destruct Hp as [H1 H2]. destruct segs as [|s segs']; [destruct last|]; cbn [pth_ok]; try (split; [reflexivity | exact G]).
      * split; [|exact G]. cbn [app forallb]. rewrite H2. reflexivity.
      * split; [|exact G]. rewrite forallb_snoc, H1, H2. reflexivity.
    + cbn [pth_ok]. split; [reflexivity | exact G].
  - right. split; [reflexivity|]. pose proof (Gsp eq_refl) as G2. destruct p as [[segs last]|]; [|destruct Hp]. cbn [pth_push].
    destruct Hp as [H1 H2]. destruct segs as [|s segs']; [destruct last|]; cbn [pth_ok_sp]; try (split; [reflexivity | exact G2]).
    + split; [|exact G2]. cbn [app forallb]. rewrite H2. reflexivity.
    + split; [|exact G2]. rewrite forallb_snoc, H1, H2. reflexivity.
Qed.

Lemma pth_clear_cls st p : auth_cls st p -> auth_cls st (pth_clear p).
Proof.
  intros [[-> Hp]|[-> Hp]].
  - left. split; [reflexivity|]. destruct p; cbn [pth_clear pth_ok]; [split; reflexivity | exact I].
  - right. split; [reflexivity|]. destruct p; [|destruct Hp]. cbn [pth_clear pth_ok_sp]. split; reflexivity.
Qed.

(* operations that only clear or grow the path *)
Definition psm_op_grow (o : psm_op) : Prop := match o with PClear | PPush _ | PExtend _ => True | _ => False end.

Lemma extend_text_cls st segs : forall p, auth_cls st p -> Forall usv_list segs ->
  exists p', auth_cls st p' /\ extend_text st (pth_text p) segs = pth_text p'.
Proof.
  induction segs as [|seg rest IH]; intros p Hc Hu; cbn [extend_text fold_left].
  - exists p. split; [exact Hc | reflexivity].
  - pose proof (Forall_inv Hu) as Hu1. pose proof (Forall_inv_tail Hu) as Hu2.
    destruct (seg_skipped (strip_tnl seg)) eqn:Hk1.
    + unfold push_text at 2. rewrite Hk1. apply IH; assumption.
    + rewrite (push_text_pth st p seg Hk1). destruct (seg_text_good st seg Hu1 Hk1) as [G Gsp].
      apply IH; [apply pth_push_cls; assumption | assumption].
Qed.

Lemma session_text_cls st ops : forall p, auth_cls st p -> Forall psm_op_usv ops ->
  Forall psm_op_grow ops -> exists p', auth_cls st p' /\ session_text st (pth_text p) ops = pth_text p'.
Proof.
  induction ops as [|o rest IH]; intros p Hc Hu Hg; cbn [session_text fold_left].
  - exists p. split; [exact Hc | reflexivity].
  - pose proof (Forall_inv Hu) as Hu1. pose proof (Forall_inv_tail Hu) as Hu2.
    pose proof (Forall_inv Hg) as Hg1. pose proof (Forall_inv_tail Hg) as Hg2.
    assert (exists p1, auth_cls st p1 /\ op_text st (pth_text p) o = pth_text p1) as (p1 & Hc1 & E1).
    { destruct o; cbn [op_text psm_op_grow psm_op_usv] in *; try contradiction.
      - exists (pth_clear p). split; [apply pth_clear_cls; exact Hc | apply clear_text_pth].
      - apply (extend_text_cls st [s] p Hc); constructor; try assumption; constructor.
      - apply (extend_text_cls st ss p Hc); assumption. }
    rewrite E1. apply (IH p1 Hc1 Hu2 Hg2).
Qed.

Definition pth_pop (p : pth) : pth :=
  match p with
  | None => None
  | Some ([], _) => Some ([], [])
  | Some (segs, _) => Some (removelast segs, List.last segs [])
  end.
Definition pth_pop_if_empty (p : pth) : pth :=
  match p with
  | Some (s :: sg, []) => Some (removelast (s :: sg), List.last (s :: sg) [])
  | _ => p
  end.

Lemma good_no_slash s : good_seg s = true -> no_byte 47 s = true.
Proof. intros H. apply good_seg_parts in H. tauto. Qed.

Lemma nfirstn_succ_cons c A rest : nfirstn (1 + nlen A) (c :: A ++ rest) = c :: A.
Proof. replace (1 + nlen A) with (nlen (c :: A)) by (rewrite nlen_cons; reflexivity). apply (nfirstn_app_len (c :: A) rest). Qed.

Lemma pop_text_pth p : pth_ok p -> pop_text (pth_text p) = pth_text (pth_pop p).
Proof.
  destruct p as [[segs last]|]; [|reflexivity]. intros [H1 H2]. pose proof (good_no_slash last H2) as Hl.
  destruct segs as [|s0 sg0].
  - cbn [pth_text pth_pop]. unfold C02_Path.path_text, pop_text. cbn [segs_text map concat app].
    destruct last as [|c r]; [reflexivity|].
    replace (nlen (47 :: c :: r) <=? 1) with false by (rewrite !nlen_cons; symmetry; apply N.leb_gt; lia).
    change (nskipn 1 (47 :: c :: r)) with (c :: r). unfold rfind. rewrite rfind_aux_none by exact Hl. reflexivity.
  - cbn [pth_pop]. set (sg := removelast (s0 :: sg0)). set (s := List.last (s0 :: sg0) []).
    assert (s0 :: sg0 = sg ++ [s]) as Es by (apply app_removelast_last; discriminate).
    rewrite Es. cbn [pth_text]. unfold C02_Path.path_text, pop_text. rewrite segs_text_snoc.
    replace (nlen (47 :: (segs_text sg ++ s ++ [47]) ++ last) <=? 1) with false
      by (rewrite nlen_cons, !nlen_app; change (nlen [47]) with 1; symmetry; apply N.leb_gt; lia).
    change (nskipn 1 (47 :: (segs_text sg ++ s ++ [47]) ++ last)) with ((segs_text sg ++ s ++ [47]) ++ last).
    replace ((segs_text sg ++ s ++ [47]) ++ last) with ((segs_text sg ++ s) ++ 47 :: last)
      by (rewrite <- !app_assoc; reflexivity).
    rewrite (rfind_app_last 47 (segs_text sg ++ s) last Hl). rewrite nfirstn_succ_cons. reflexivity.
Qed.

Lemma pop_if_empty_text_pth p : pth_ok p -> pop_if_empty_text (pth_text p) = pth_text (pth_pop_if_empty p).
Proof.
  destruct p as [[segs last]|]; [|reflexivity]. intros [H1 H2]. pose proof (good_no_slash last H2) as Hl.
  unfold pop_if_empty_text. destruct last as [|c r].
  - destruct segs as [|s0 sg0]; [reflexivity|].
    cbn [pth_pop_if_empty]. set (sg := removelast (s0 :: sg0)). set (s := List.last (s0 :: sg0) []).
    assert (s0 :: sg0 = sg ++ [s]) as Es by (apply app_removelast_last; discriminate).
    rewrite Es. cbn [pth_text]. unfold C02_Path.path_text. rewrite segs_text_snoc. rewrite app_nil_r.
    replace (nlen (47 :: segs_text sg ++ s ++ [47]) <=? 1) with false
      by (rewrite nlen_cons, !nlen_app; change (nlen [47]) with 1; symmetry; apply N.leb_gt; lia).
    change (nskipn 1 (47 :: segs_text sg ++ s ++ [47])) with (segs_text sg ++ s ++ [47]).
    rewrite (app_assoc (segs_text sg) s [47]). rewrite ends_with_byte_snoc.
    replace (nlen (47 :: (segs_text sg ++ s) ++ [47]) - 1) with (nlen (47 :: segs_text sg ++ s))
      by (rewrite !nlen_cons, !nlen_app; change (nlen [47]) with 1; lia).
    apply (nfirstn_app_len (47 :: segs_text sg ++ s) [47]).
  - cbn [pth_pop_if_empty]. destruct segs; cbn [pth_text]; unfold C02_Path.path_text.
    + destruct (nlen (47 :: segs_text [] ++ c :: r) <=? 1); [reflexivity|].
      change (nskipn 1 (47 :: segs_text [] ++ c :: r)) with (segs_text [] ++ c :: r).
      rewrite ends_with_not; [reflexivity | discriminate |].
      unfold no_byte in Hl. rewrite forallb_forall in Hl. apply Forall_forall. intros x Hx. specialize (Hl x Hx). lia.
    + destruct (nlen (47 :: segs_text (l :: segs) ++ c :: r) <=? 1); [reflexivity|].
      change (nskipn 1 (47 :: segs_text (l :: segs) ++ c :: r)) with (segs_text (l :: segs) ++ c :: r).
      rewrite ends_with_not; [reflexivity | discriminate |].
      unfold no_byte in Hl. rewrite forallb_forall in Hl. apply Forall_forall. intros x Hx. specialize (Hl x Hx). lia.
Qed.

Lemma forallb_removelast {A} (f : A -> bool) (l : list A) d : l <> [] -> forallb f l = true ->
  forallb f (removelast l) = true /\ f (List.last l d) = true.
Proof.
  intros Hne H. rewrite (app_removelast_last d Hne) in H. rewrite forallb_snoc in H. apply andb_true_iff in H. exact H.
Qed.

Lemma pth_pop_cls st p : auth_cls st p -> auth_cls st (pth_pop p).
Proof.
  intros [[-> Hp]|[-> Hp]].
  - left. split; [reflexivity|]. destruct p as [[segs last]|]; [|exact I]. destruct Hp as [H1 H2].
    destruct segs as [|s0 sg0]; cbn [pth_pop pth_ok]; [split; reflexivity|].
    apply (forallb_removelast good_seg (s0 :: sg0) []); [discriminate | exact H1].
  - right. split; [reflexivity|]. destruct p as [[segs last]|]; [|destruct Hp]. destruct Hp as [H1 H2].
    destruct segs as [|s0 sg0]; cbn [pth_pop pth_ok_sp]; [split; reflexivity|].
    apply (forallb_removelast good_seg_sp (s0 :: sg0) []); [discriminate | exact H1].
Qed.

Lemma pth_pop_if_empty_cls st p : auth_cls st p -> auth_cls st (pth_pop_if_empty p).
Proof.
  intros [[-> Hp]|[-> Hp]].
  - left. split; [reflexivity|]. destruct p as [[segs last]|]; [|exact I]. destruct Hp as [H1 H2].
    destruct segs as [|s0 sg0]; destruct last; cbn [pth_pop_if_empty pth_ok]; try (split; assumption).
    apply (forallb_removelast good_seg (s0 :: sg0) []); [discriminate | exact H1].
  - right. split; [reflexivity|]. destruct p as [[segs last]|]; [|destruct Hp]. destruct Hp as [H1 H2].
    destruct segs as [|s0 sg0]; destruct last; cbn [pth_pop_if_empty pth_ok_sp]; try (split; assumption).
    apply (forallb_removelast good_seg_sp (s0 :: sg0) []); [discriminate | exact H1].
Qed.

(* every editor operation (any &str argument) is an operation on the canonical path *)
Lemma session_text_cls_all st ops : forall p, auth_cls st p -> Forall psm_op_usv ops ->
  exists p', auth_cls st p' /\ session_text st (pth_text p) ops = pth_text p'.
Proof.
  induction ops as [|o rest IH]; intros p Hc Hu; cbn [session_text fold_left].
  - exists p. split; [exact Hc | reflexivity].
  - pose proof (Forall_inv Hu) as Hu1. pose proof (Forall_inv_tail Hu) as Hu2.
    assert (exists p1, auth_cls st p1 /\ op_text st (pth_text p) o = pth_text p1) as (p1 & Hc1 & E1).
    { pose proof (C06_SpliceAuth.pth_cls_ok st p Hc) as Hok.
      destruct o; cbn [op_text psm_op_usv] in *.
      - exists (pth_clear p). split; [apply pth_clear_cls; exact Hc | apply clear_text_pth].
      - exists (pth_pop_if_empty p). split; [apply pth_pop_if_empty_cls; exact Hc | apply pop_if_empty_text_pth; exact Hok].
      - exists (pth_pop p). split; [apply pth_pop_cls; exact Hc | apply pop_text_pth; exact Hok].
      - apply (extend_text_cls st [s] p Hc); constructor; try assumption; constructor.
      - apply (extend_text_cls st ss p Hc); assumption. }
    rewrite E1. apply (IH p1 Hc1 Hu2).
Qed.

Section PushCanon.
Variable dbg : bool.
Variable hp hpo : list N -> result host.
Variable hd : host -> list N.
Hypothesis HRT : HostRT hp hpo hd.

Notation auth_ok := (auth_ok hp hpo hd).
Notation auth_url := (auth_url hd).
Notation auth_front := (auth_front hd).
Notation auth_pre := (auth_pre hd).

Lemma auth_path_bytes sch ui h pt p q f : path_bytes (auth_url sch ui h pt p q f) = pth_text p.
Proof.
  unfold path_bytes. rewrite auth_url_qf. rewrite path_end_qf. unfold qf_url. cbn [path_start ser].
  unfold C02_Auth.auth_pre. rewrite <- app_assoc. rewrite nskipn_app_len. rewrite nlen_app.
  replace (nlen (C02_Auth.auth_front hd sch ui h pt) + nlen (pth_text p) - nlen (C02_Auth.auth_front hd sch ui h pt))
    with (nlen (pth_text p)) by lia.
  apply nfirstn_app_len.
Qed.

(* the session maps auth_url .. p .. to auth_url .. p' .. with p' canonical of the same class *)
Theorem psm_grow_auth st sch ui h pt p q f ops u' : auth_ok st sch ui h pt p q f -> auth_cls st p ->
  Forall psm_op_usv ops -> Forall psm_op_grow ops ->
  path_segments_session dbg (auth_url sch ui h pt p q f) ops = Some (u', SOk) ->
  exists p', auth_cls st p' /\ u' = auth_url sch ui h pt p' q f
             /\ pth_text p' = session_text st (pth_text p) ops.
Proof.
  intros K Hc Hu Hg E. pose proof (C06_SpliceAuth.auth_cls_nf st p Hc) as Hnf.
  pose proof (proj1 (auth_url_wf hp hpo hd HRT _ _ _ _ _ _ _ _ K)) as W.
  assert (st_of (auth_url sch ui h pt p q f) = st) as Est.
  { unfold st_of. rewrite (auth_stype hd). exact (ak_st _ _ _ _ _ _ _ _ _ _ _ K). }
  pose proof (path_segments_session_exact dbg _ ops u' W (auth_byte_slash hd sch ui h pt p q f)) as X.
  rewrite Est in X. specialize (X Hnf Hu E). rewrite auth_path_bytes in X.
  destruct (session_text_cls st ops p Hc Hu Hg) as (p' & Hc' & E').
  exists p'. split; [exact Hc'|]. split; [|symmetry; exact E'].
  rewrite X, E'. rewrite !auth_url_qf. unfold C02_Auth.auth_pre. apply with_path_qf.
Qed.

Theorem psm_grow_Canon u ops u' : Canon hp hpo hd u -> has_authority_b u = true ->
  Forall psm_op_usv ops -> Forall psm_op_grow ops ->
  path_segments_session dbg u ops = Some (u', SOk) -> nlen (ser u') <= U32_MAX_P -> Canon hp hpo hd u'.
Proof.
  intros C Hau Hu Hg E Hb.
  destruct (Canon_auth_cases hp hpo hd u C Hau) as (st & sch & ui & h & pt & p & q & f & -> & K & Hc).
  destruct (psm_grow_auth st sch ui h pt p q f ops u' K Hc Hu Hg E) as (p' & Hc' & -> & _).
  cbn [ser C02_Auth.auth_url] in Hb.
  pose proof (auth_ok_path hp hpo hd st sch ui h pt p q f p' K (C06_SpliceAuth.pth_cls_ok st p' Hc') Hb) as K'.
  destruct Hc' as [[-> Hp']|[-> Hp']]; [apply Canon_auth | apply Canon_special]; assumption.
Qed.

Theorem psm_auth st sch ui h pt p q f ops u' : auth_ok st sch ui h pt p q f -> auth_cls st p ->
  Forall psm_op_usv ops ->
  path_segments_session dbg (auth_url sch ui h pt p q f) ops = Some (u', SOk) ->
  exists p', auth_cls st p' /\ u' = auth_url sch ui h pt p' q f
             /\ pth_text p' = session_text st (pth_text p) ops.
Proof.
  intros K Hc Hu E. pose proof (C06_SpliceAuth.auth_cls_nf st p Hc) as Hnf.
  pose proof (proj1 (auth_url_wf hp hpo hd HRT _ _ _ _ _ _ _ _ K)) as W.
  assert (st_of (auth_url sch ui h pt p q f) = st) as Est.
  { unfold st_of. rewrite (auth_stype hd). exact (ak_st _ _ _ _ _ _ _ _ _ _ _ K). }
  pose proof (path_segments_session_exact dbg _ ops u' W (auth_byte_slash hd sch ui h pt p q f)) as X.
  rewrite Est in X. specialize (X Hnf Hu E). rewrite auth_path_bytes in X.
  destruct (session_text_cls_all st ops p Hc Hu) as (p' & Hc' & E').
  exists p'. split; [exact Hc'|]. split; [|symmetry; exact E'].
  rewrite X, E'. rewrite !auth_url_qf. unfold C02_Auth.auth_pre. apply with_path_qf.
Qed.

(* a whole path_segments_mut session (any of the five operations, any &str arguments) on a canonical record
   with an authority returns a canonical record *)
Theorem psm_Canon u ops u' : Canon hp hpo hd u -> has_authority_b u = true ->
  Forall psm_op_usv ops ->
  path_segments_session dbg u ops = Some (u', SOk) -> nlen (ser u') <= U32_MAX_P -> Canon hp hpo hd u'.
Proof.
  intros C Hau Hu E Hb.
  destruct (Canon_auth_cases hp hpo hd u C Hau) as (st & sch & ui & h & pt & p & q & f & -> & K & Hc).
  destruct (psm_auth st sch ui h pt p q f ops u' K Hc Hu E) as (p' & Hc' & -> & _).
  cbn [ser C02_Auth.auth_url] in Hb.
  pose proof (auth_ok_path hp hpo hd st sch ui h pt p q f p' K (C06_SpliceAuth.pth_cls_ok st p' Hc') Hb) as K'.
  destruct Hc' as [[-> Hp']|[-> Hp']]; [apply Canon_auth | apply Canon_special]; assumption.
Qed.
End PushCanon.
