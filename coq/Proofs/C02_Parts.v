(* Proofs/C02_Parts.v - what the component states of the parser compute (scheme, opaque path,
   query, fragment), for every input, and what they compute on canonical text (their own output). *)
From RU Require Import Base.Prelude Base.Utf8 Base.Utf8Facts Model.AsciiSet Gen.Tables Model.PercentEncoding
  Model.UrlRecord Model.Parser Proofs.ListN Proofs.C14_Enc Proofs.C14_Views Proofs.C02_Enc.

Lemma usv_cons c l : usv_list (c :: l) <-> is_usv c /\ usv_list l.
Proof. unfold usv_list. split; [intros H; inversion H; tauto | intros [H1 H2]; constructor; assumption]. Qed.

Lemma usv_app a b : usv_list (a ++ b) <-> usv_list a /\ usv_list b.
Proof. unfold usv_list. apply Forall_app. Qed.

Lemma usv_rev l : usv_list l -> usv_list (rev l).
Proof. unfold usv_list. apply Forall_rev. Qed.

(* the encoded form of one character is never empty *)
Lemma encode_utf8_nonempty S c : encode S (utf8_encode [c]) <> [].
Proof.
  intros E. pose proof (encode_len_ge S (utf8_encode [c])) as Hl. rewrite E in Hl.
  unfold utf8_encode in Hl. cbn [flat_map] in Hl. rewrite app_nil_r in Hl. unfold utf8_encode1 in Hl.
  destruct (c <? 128); [cbn in Hl; lia|]. destruct (c <? 2048); [cbn in Hl; lia|].
  destruct (c <? 65536); cbn in Hl; lia.
Qed.

Lemma usv_drop_while g l : usv_list l -> usv_list (drop_while g l).
Proof.
  induction l as [|c r IH]; intros H; [constructor|]. cbn [drop_while].
  destruct (g c); [apply IH; apply usv_cons in H; tauto | exact H].
Qed.

Lemma usv_trim g l : usv_list l -> usv_list (trim_matches g l).
Proof. intros H. unfold trim_matches. apply usv_rev, usv_drop_while, usv_rev, usv_drop_while. exact H. Qed.

Lemma pe_display_utf8 S s : usv_list s -> pe_display S (utf8_encode s) = encode S (utf8_encode s).
Proof. intros H. apply pe_display_is_encode. apply utf8_encode_bytes. exact H. Qed.

Lemma push_encoded_eq S ser s : usv_list s -> push_encoded S ser s = ser ++ encode S (utf8_encode s).
Proof. intros H. unfold push_encoded. rewrite pe_display_utf8 by exact H. reflexivity. Qed.

Lemma flush_part_eq S ser part : usv_list part ->
  flush_part S utf8_encode ser part = ser ++ encode S (utf8_encode (rev part)).
Proof. intros H. unfold flush_part. rewrite pe_display_utf8 by (apply usv_rev; exact H). reflexivity. Qed.

Lemma enc_utf8_app S a b : encode S (utf8_encode (a ++ b)) = encode S (utf8_encode a) ++ encode S (utf8_encode b).
Proof. rewrite utf8_encode_app. apply encode_app. Qed.

Lemma clean_usv S t : clean S t = true -> usv_list t.
Proof. intros H. exact (ascii_usv t (clean_ascii S t H)). Qed.

(* text a set leaves alone is its own encoded form *)
Lemma encode_utf8_clean S t : clean S t = true -> encode S (utf8_encode t) = t.
Proof. intros H. rewrite utf8_encode_ascii by exact (clean_ascii S t H). exact (encode_clean S t H). Qed.

(* a sweep over the ASCII range: every byte the set keeps satisfies Q *)
Definition kept_sat (S : aset) (Q : N -> bool) : bool := all_below 128 (fun b => implb (kept S b) (Q b)).

Lemma clean_forallb S Q t : kept_sat S Q = true -> clean S t = true -> forallb Q t = true.
Proof.
  unfold kept_sat. intros HS.
  assert (forall b, kept S b = true -> Q b = true) as HQ.
  { intros b Hk. pose proof (all_below_spec 128 (fun b => implb (kept S b) (Q b)) HS b (kept_ascii S b Hk)) as H.
    cbv beta in H. rewrite Hk in H. exact H. }
  clear HS. induction t as [|b t IH]; intros H; [reflexivity|].
  rewrite clean_cons in H. apply andb_true_iff in H. destruct H as [H1 H2].
  cbn [forallb]. rewrite (IH H2), andb_true_r. exact (HQ b H1).
Qed.

Lemma inp_next_cons c r : is_tnl c = false -> inp_next (c :: r) = Some (c, r).
Proof. intros H. unfold inp_next. cbn [drop_while]. rewrite H. reflexivity. Qed.

Lemma inp_next_tnl c r : is_tnl c = true -> inp_next (c :: r) = inp_next r.
Proof. intros H. unfold inp_next. cbn [drop_while]. rewrite H. reflexivity. Qed.

Lemma inp_next_nil : inp_next [] = None.
Proof. reflexivity. Qed.

(* a decimal numeral does not end with '/' *)
Lemma decimal_last p X : ends_with_byte 47 (X ++ 58 :: decimal p) = false.
Proof.
  unfold ends_with_byte. change (58 :: decimal p) with ([58] ++ decimal p). rewrite !rev_app_distr.
  unfold decimal. rewrite rev_involutive. cbn [decimal_rev app].
  apply N.eqb_neq. pose proof (N.mod_lt p 10 ltac:(lia)). lia.
Qed.

Definition scheme_out_char (c : N) : bool := is_lower c || is_digit c || (c =? 43) || (c =? 45) || (c =? 46).
Definition scheme_canon (s : list N) : bool :=
  match s with c :: _ => is_lower c | [] => false end && forallb scheme_out_char s.

Lemma scheme_out_char_not_tnl c : scheme_out_char c = true -> is_tnl c = false.
Proof. unfold scheme_out_char, is_tnl, is_lower, is_digit. lia. Qed.

Lemma parse_scheme_loop_canon ctx sch : forall acc r, forallb scheme_out_char sch = true ->
  parse_scheme_loop ctx acc (sch ++ 58 :: r) = Some (rev acc ++ sch, r).
Proof.
  induction sch as [|c s IH]; intros acc r H.
  - cbn [app parse_scheme_loop].
    replace (is_tnl 58) with false by reflexivity.
    replace (is_lower 58 || is_digit 58 || (58 =? 43) || (58 =? 45) || (58 =? 46)) with false by reflexivity.
    replace (is_upper 58) with false by reflexivity.
    replace (58 =? 58) with true by reflexivity. rewrite app_nil_r. reflexivity.
  - cbn [forallb] in H. apply andb_true_iff in H. destruct H as [H1 H2].
    cbn [app parse_scheme_loop]. rewrite (scheme_out_char_not_tnl c H1).
    unfold scheme_out_char in H1. rewrite H1. rewrite IH by exact H2.
    cbn [rev]. rewrite <- app_assoc. reflexivity.
Qed.

Theorem parse_scheme_canon sch r : scheme_canon sch = true ->
  parse_scheme CUrlParser (sch ++ 58 :: r) = Some (sch, r).
Proof.
  unfold scheme_canon. intros H. apply andb_true_iff in H. destruct H as [H1 H2].
  destruct sch as [|c s]; [discriminate|].
  unfold parse_scheme, inp_starts_with_pred.
  assert (is_tnl c = false) as Ht by (unfold is_lower, is_tnl in *; lia).
  cbn [app]. rewrite inp_next_cons by exact Ht.
  replace (is_alpha c) with true by (unfold is_alpha; rewrite H1; symmetry; apply orb_true_r).
  change (c :: s ++ 58 :: r) with ((c :: s) ++ 58 :: r).
  rewrite parse_scheme_loop_canon by exact H2. reflexivity.
Qed.

(* what the scheme state produces from any input, in the parser and in the setter *)
Lemma parse_scheme_loop_out_g ctx l : forall acc sch rem,
  parse_scheme_loop ctx acc l = Some (sch, rem) ->
  exists s', sch = rev acc ++ s' /\ forallb scheme_out_char s' = true.
Proof.
  induction l as [|c r IH]; intros acc sch rem H; cbn [parse_scheme_loop] in H.
  - destruct (ctx_eqb ctx CSetter); [|discriminate]. inversion H; subst. exists []. split; [rewrite app_nil_r; reflexivity | reflexivity].
  - destruct (is_tnl c) eqn:Et; [exact (IH _ _ _ H)|].
    destruct (is_lower c || is_digit c || (c =? 43) || (c =? 45) || (c =? 46)) eqn:E1.
    + destruct (IH _ _ _ H) as (s' & Hs & Hf). exists (c :: s'). split.
      * rewrite Hs. cbn [rev]. rewrite <- app_assoc. reflexivity.
      * cbn [forallb]. unfold scheme_out_char at 1. rewrite E1, Hf. reflexivity.
    + destruct (is_upper c) eqn:E2.
      * destruct (IH _ _ _ H) as (s' & Hs & Hf). exists ((c + 32) :: s'). split.
        -- rewrite Hs. cbn [rev]. rewrite <- app_assoc. reflexivity.
        -- cbn [forallb]. rewrite Hf, andb_true_r. unfold scheme_out_char, is_lower, is_upper in *. lia.
      * destruct (c =? 58); [|discriminate]. inversion H; subst. exists []. split; [rewrite app_nil_r; reflexivity | reflexivity].
Qed.

Lemma parse_scheme_head_g ctx l : forall sch rem,
  inp_starts_with_pred is_alpha l = true -> parse_scheme_loop ctx [] l = Some (sch, rem) ->
  match sch with c :: _ => is_lower c = true | [] => False end.
Proof.
  induction l as [|c r IH]; intros sch rem Ha H.
  - discriminate.
  - unfold inp_starts_with_pred in Ha. cbn [parse_scheme_loop] in H.
    destruct (is_tnl c) eqn:Et.
    + rewrite inp_next_tnl in Ha by exact Et. exact (IH _ _ Ha H).
    + rewrite inp_next_cons in Ha by exact Et.
      destruct (is_lower c || is_digit c || (c =? 43) || (c =? 45) || (c =? 46)) eqn:E1.
      * destruct (parse_scheme_loop_out_g _ _ _ _ _ H) as (s' & Hs & _). rewrite Hs. cbn [rev app].
        unfold is_alpha, is_upper, is_lower, is_digit in *. lia.
      * destruct (is_upper c) eqn:E2.
        -- destruct (parse_scheme_loop_out_g _ _ _ _ _ H) as (s' & Hs & _). rewrite Hs. cbn [rev app].
           unfold is_upper, is_lower in *. lia.
        -- exfalso. unfold is_alpha in Ha. rewrite E2 in Ha. cbn [orb] in Ha.
           rewrite Ha in E1. discriminate.
Qed.

Theorem parse_scheme_out_g ctx l sch rem : parse_scheme ctx l = Some (sch, rem) -> scheme_canon sch = true.
Proof.
  unfold parse_scheme. destruct (inp_starts_with_pred is_alpha l) eqn:Ea; [|discriminate].
  intros H. unfold scheme_canon.
  pose proof (parse_scheme_head_g ctx l sch rem Ea H) as Hh.
  destruct (parse_scheme_loop_out_g _ _ _ _ _ H) as (s' & Hs & Hf). cbn [rev app] in Hs. subst s'.
  destruct sch as [|c s]; [contradiction|]. rewrite Hh, Hf. reflexivity.
Qed.

Lemma parse_scheme_loop_out l : forall acc sch rem,
  parse_scheme_loop CUrlParser acc l = Some (sch, rem) ->
  exists s', sch = rev acc ++ s' /\ forallb scheme_out_char s' = true.
Proof. exact (parse_scheme_loop_out_g CUrlParser l). Qed.

Lemma parse_scheme_head l : forall sch rem,
  inp_starts_with_pred is_alpha l = true -> parse_scheme_loop CUrlParser [] l = Some (sch, rem) ->
  match sch with c :: _ => is_lower c = true | [] => False end.
Proof. exact (parse_scheme_head_g CUrlParser l). Qed.

Theorem parse_scheme_out l sch rem :
  parse_scheme CUrlParser l = Some (sch, rem) -> scheme_canon sch = true.
Proof. exact (parse_scheme_out_g CUrlParser l sch rem). Qed.

(* the remaining input is a suffix of the input, so it inherits the last character *)
Lemma parse_scheme_loop_suffix ctx l : forall acc sch rem,
  parse_scheme_loop ctx acc l = Some (sch, rem) -> exists pre, l = pre ++ rem.
Proof.
  induction l as [|c r IH]; intros acc sch rem H; cbn [parse_scheme_loop] in H.
  - destruct (ctx_eqb ctx CSetter); [|discriminate]. inversion H; subst. exists []. reflexivity.
  - assert (forall acc', parse_scheme_loop ctx acc' r = Some (sch, rem) -> exists pre, c :: r = pre ++ rem) as G.
    { intros acc' H'. destruct (IH _ _ _ H') as [pre Hp]. exists (c :: pre). cbn [app]. f_equal. exact Hp. }
    destruct (is_tnl c); [exact (G _ H)|].
    destruct (is_lower c || is_digit c || (c =? 43) || (c =? 45) || (c =? 46)); [exact (G _ H)|].
    destruct (is_upper c); [exact (G _ H)|].
    destruct (c =? 58); [|discriminate]. inversion H; subst. exists [c]. reflexivity.
Qed.

Lemma parse_scheme_suffix ctx l sch rem : parse_scheme ctx l = Some (sch, rem) -> exists pre, l = pre ++ rem.
Proof.
  unfold parse_scheme. destruct (inp_starts_with_pred is_alpha l); [|discriminate].
  apply parse_scheme_loop_suffix.
Qed.

Lemma scheme_rem_usv input sch rem : usv_list input ->
  parse_scheme CUrlParser (input_new_trim_c0 input) = Some (sch, rem) -> usv_list rem.
Proof.
  intros Hu Hs. destruct (parse_scheme_suffix _ _ _ _ Hs) as [pre Hpre].
  pose proof (usv_trim is_c0_or_space input Hu) as Ht. fold (input_new_trim_c0 input) in Ht.
  rewrite Hpre in Ht. apply usv_app in Ht. tauto.
Qed.

Definition strip_tnl (l : list N) : list N := filter not_tnl l.

Lemma strip_tnl_id t : forallb not_tnl t = true -> strip_tnl t = t.
Proof.
  induction t as [|c t IH]; intros H; [reflexivity|].
  cbn [forallb] in H. apply andb_true_iff in H. destruct H as [H1 H2].
  unfold strip_tnl. cbn [filter]. rewrite H1. f_equal. exact (IH H2).
Qed.

Lemma usv_strip l : usv_list l -> usv_list (strip_tnl l).
Proof.
  unfold usv_list, strip_tnl. intros H. apply Forall_forall. intros x Hx.
  apply filter_In in Hx. rewrite Forall_forall in H. apply H. tauto.
Qed.

Lemma parse_fragment_loop_spec l : forall ser part, usv_list part -> usv_list l ->
  parse_fragment_loop ser part l = ser ++ encode T_FRAGMENT (utf8_encode (rev part ++ strip_tnl l)).
Proof.
  induction l as [|c r IH]; intros ser part Hp Hl.
  - cbn [parse_fragment_loop strip_tnl filter]. rewrite app_nil_r.
    destruct part as [|x y]; [cbn; rewrite app_nil_r; reflexivity|].
    apply flush_part_eq. exact Hp.
  - apply usv_cons in Hl. destruct Hl as [Hc Hr]. cbn [parse_fragment_loop].
    unfold strip_tnl. cbn [filter]. unfold not_tnl at 1. destruct (is_tnl c) eqn:Et; cbn [negb].
    + rewrite IH by (try constructor; assumption). rewrite flush_part_eq by exact Hp.
      cbn [rev app]. rewrite <- app_assoc. rewrite <- enc_utf8_app. reflexivity.
    + rewrite IH by (try (apply usv_cons; split); assumption).
      cbn [rev]. rewrite <- app_assoc. reflexivity.
Qed.

Definition frag_of (l : list N) : list N := encode T_FRAGMENT (utf8_encode (strip_tnl l)).

Theorem parse_fragment_spec ser l : usv_list l -> parse_fragment ser l = ser ++ frag_of l.
Proof. intros H. unfold parse_fragment. rewrite parse_fragment_loop_spec by (try constructor; exact H). reflexivity. Qed.

Lemma frag_of_clean l : usv_list l -> clean T_FRAGMENT (frag_of l) = true.
Proof.
  intros H. apply encode_is_clean; [exact stable_FRAGMENT|]. apply utf8_encode_bytes. apply usv_strip. exact H.
Qed.

Theorem frag_of_canon t : clean T_FRAGMENT t = true -> frag_of t = t.
Proof.
  intros H. unfold frag_of.
  rewrite strip_tnl_id by (apply (clean_no_tnl T_FRAGMENT); [exact tnl_FRAGMENT | exact H]).
  exact (encode_utf8_clean T_FRAGMENT t H).
Qed.

Fixpoint query_chars (stop : bool) (l : list N) : list N :=
  match l with
  | [] => []
  | c :: r => if is_tnl c then query_chars stop r
              else if (c =? 35) && stop then [] else c :: query_chars stop r
  end.
Fixpoint query_rest (stop : bool) (l : list N) : option (list N) :=
  match l with
  | [] => None
  | c :: r => if is_tnl c then query_rest stop r
              else if (c =? 35) && stop then Some r else query_rest stop r
  end.

Lemma usv_query_chars stop l : usv_list l -> usv_list (query_chars stop l).
Proof.
  induction l as [|c r IH]; intros H; [constructor|].
  apply usv_cons in H. destruct H as [Hc Hr]. cbn [query_chars].
  destruct (is_tnl c); [exact (IH Hr)|]. destruct ((c =? 35) && stop); [constructor|].
  apply usv_cons. split; [exact Hc | exact (IH Hr)].
Qed.

Lemma usv_query_rest stop l r : usv_list l -> query_rest stop l = Some r -> usv_list r.
Proof.
  induction l as [|c t IH]; intros H E; [discriminate|].
  apply usv_cons in H. destruct H as [Hc Hr]. cbn [query_rest] in E.
  destruct (is_tnl c); [exact (IH Hr E)|]. destruct ((c =? 35) && stop); [inversion E; subst; exact Hr | exact (IH Hr E)].
Qed.

Lemma parse_query_loop_spec S stop l : forall ser part, usv_list part -> usv_list l ->
  parse_query_loop S utf8_encode stop ser part l
  = (ser ++ encode S (utf8_encode (rev part ++ query_chars stop l)), query_rest stop l).
Proof.
  induction l as [|c r IH]; intros ser part Hp Hl.
  - cbn [parse_query_loop query_chars query_rest]. rewrite app_nil_r.
    destruct part as [|x y]; [cbn; rewrite app_nil_r; reflexivity|].
    rewrite flush_part_eq by exact Hp. reflexivity.
  - apply usv_cons in Hl. destruct Hl as [Hc Hr]. cbn [parse_query_loop query_chars query_rest].
    destruct (is_tnl c) eqn:Et.
    + rewrite IH by (try constructor; assumption). rewrite flush_part_eq by exact Hp.
      cbn [rev app]. rewrite <- app_assoc, <- enc_utf8_app. reflexivity.
    + destruct ((c =? 35) && stop) eqn:E.
      * rewrite flush_part_eq by exact Hp. rewrite app_nil_r. reflexivity.
      * rewrite IH by (try (apply usv_cons; split); assumption).
        cbn [rev]. rewrite <- app_assoc. reflexivity.
Qed.

Definition query_of (st : scheme_type) (l : list N) : list N :=
  encode (query_set st) (utf8_encode (query_chars true l)).

Lemma stable_query_set st : set_stable (query_set st) = true.
Proof. unfold query_set. destruct (st_is_special st); [exact stable_SPECIAL_QUERY | exact stable_QUERY]. Qed.
Lemma tnl_query_set st : set_has_tnl (query_set st) = true.
Proof. unfold query_set. destruct (st_is_special st); [exact tnl_SPECIAL_QUERY | exact tnl_QUERY]. Qed.

Lemma query_of_clean st l : usv_list l -> clean (query_set st) (query_of st l) = true.
Proof.
  intros H. apply encode_is_clean; [apply stable_query_set|].
  apply utf8_encode_bytes. apply usv_query_chars. exact H.
Qed.

Definition not_tnl_hash (c : N) : bool := not_tnl c && negb (c =? 35).

Lemma query_chars_canon t : forallb not_tnl_hash t = true ->
  (query_chars true t = t /\ query_rest true t = None)
  /\ (forall r, query_chars true (t ++ 35 :: r) = t /\ query_rest true (t ++ 35 :: r) = Some r).
Proof.
  induction t as [|c t IH]; intros H.
  - split; [split; reflexivity|]. intros r. cbn [app query_chars query_rest].
    replace (is_tnl 35) with false by reflexivity. replace ((35 =? 35) && true) with true by reflexivity.
    split; reflexivity.
  - cbn [forallb] in H. apply andb_true_iff in H. destruct H as [H1 H2].
    destruct (IH H2) as [[I1 I2] I3]. unfold not_tnl_hash, not_tnl in H1.
    assert (is_tnl c = false) as Et by (destruct (is_tnl c); [discriminate | reflexivity]).
    assert ((c =? 35) && true = false) as E35 by (rewrite Et in H1; cbn [negb andb] in H1; destruct (c =? 35); [discriminate|reflexivity]).
    split; [split|intros r; destruct (I3 r) as [J1 J2]; split]; cbn [app query_chars query_rest]; rewrite Et, E35; congruence.
Qed.

Lemma kept_QUERY_sat : kept_sat T_QUERY not_tnl_hash = true. Proof. vm_compute. reflexivity. Qed.
Lemma kept_SQUERY_sat : kept_sat T_SPECIAL_QUERY not_tnl_hash = true. Proof. vm_compute. reflexivity. Qed.
Lemma kept_query_set_sat st : kept_sat (query_set st) not_tnl_hash = true.
Proof. unfold query_set. destruct (st_is_special st); [exact kept_SQUERY_sat | exact kept_QUERY_sat]. Qed.

Theorem query_of_canon st t : clean (query_set st) t = true ->
  query_of st t = t /\ query_rest true t = None
  /\ (forall r, query_of st (t ++ 35 :: r) = t /\ query_rest true (t ++ 35 :: r) = Some r).
Proof.
  intros H.
  pose proof (clean_forallb _ _ t (kept_query_set_sat st) H) as Hq.
  destruct (query_chars_canon t Hq) as [[I1 I2] I3].
  pose proof (encode_utf8_clean _ t H) as He.
  unfold query_of. rewrite I1. split; [exact He|]. split; [exact I2|].
  intros r. destruct (I3 r) as [J1 J2]. rewrite J1. split; [exact He | exact J2].
Qed.

Definition qf_qtext (q : option (list N)) : list N := match q with Some x => 63 :: x | None => [] end.
Definition qf_ftext (f : option (list N)) : list N := match f with Some x => 35 :: x | None => [] end.
Definition qf_text (q f : option (list N)) : list N := qf_qtext q ++ qf_ftext f.
Definition qf_qs (n : N) (q : option (list N)) : option N := match q with Some _ => Some n | None => None end.
Definition qf_fs (n : N) (q f : option (list N)) : option N :=
  match f with Some _ => Some (n + nlen (qf_qtext q)) | None => None end.
Definition opt_le (o : option N) (m : N) : Prop := match o with Some n => n <= m | None => True end.
Definition opt_clean (S : aset) (o : option (list N)) : Prop :=
  match o with Some x => clean S x = true | None => True end.

Lemma qf_text_ascii S q f : opt_clean S q -> opt_clean T_FRAGMENT f -> ascii (qf_text q f).
Proof.
  intros Hq Hf. apply ascii_app. split.
  - destruct q as [x|]; [|constructor]. constructor; [reflexivity | exact (clean_ascii S x Hq)].
  - destruct f as [y|]; [|constructor]. constructor; [reflexivity | exact (clean_ascii T_FRAGMENT y Hf)].
Qed.

(* query / fragment texts a given remaining input leads to *)
Definition pqf_q (st : scheme_type) (l : list N) : option (list N) :=
  match inp_next l with
  | Some (c, r) => if c =? 63 then Some (query_of st r) else None
  | None => None
  end.
Definition pqf_f (l : list N) : option (list N) :=
  match inp_next l with
  | Some (c, r) => if c =? 35 then Some (frag_of r)
                   else if c =? 63 then option_map frag_of (query_rest true r) else None
  | None => None
  end.

Lemma to_u32_ok n : n <= U32_MAX_P -> to_u32 n = POk n.
Proof. intros H. unfold to_u32. replace (n <=? U32_MAX_P) with true by lia. reflexivity. Qed.

Lemma to_u32_inv n m : to_u32 n = POk m -> m = n /\ n <= U32_MAX_P.
Proof. unfold to_u32. destruct (n <=? U32_MAX_P) eqn:E; [|discriminate]. intros H. inversion H. lia. Qed.

Lemma inp_next_usv l c r : usv_list l -> inp_next l = Some (c, r) -> usv_list r.
Proof.
  induction l as [|x t IH]; intros H E; [discriminate|].
  apply usv_cons in H. destruct H as [Hx Ht].
  destruct (is_tnl x) eqn:Et.
  - rewrite inp_next_tnl in E by exact Et. exact (IH Ht E).
  - rewrite inp_next_cons in E by exact Et. inversion E; subst. exact Ht.
Qed.

Section QF.
Variable ovr : option (list N -> list N).
Variable st : scheme_type.
Variable se : N.

Theorem pqf_out ser l s' qs fs : usv_list l ->
  query_enc ovr (nfirstn se (ser ++ [63])) = utf8_encode ->
  parse_query_and_fragment ovr CUrlParser st se ser l = POk (s', qs, fs) ->
  s' = ser ++ qf_text (pqf_q st l) (pqf_f l)
  /\ qs = qf_qs (nlen ser) (pqf_q st l) /\ fs = qf_fs (nlen ser) (pqf_q st l) (pqf_f l)
  /\ opt_le qs U32_MAX_P /\ opt_le fs U32_MAX_P
  /\ opt_clean (query_set st) (pqf_q st l) /\ opt_clean T_FRAGMENT (pqf_f l).
Proof.
  intros Hl Henc. unfold parse_query_and_fragment, pqf_q, pqf_f.
  destruct (inp_next l) as [[c r]|] eqn:En.
  2:{ intros H. inversion H; subst. unfold qf_text. cbn. rewrite app_nil_r. repeat split. }
  pose proof (inp_next_usv l c r Hl En) as Hr.
  destruct (c =? 35) eqn:E35.
  - assert ((c =? 63) = false) as E63 by (apply N.eqb_eq in E35; subst c; reflexivity). rewrite E63.
    destruct (to_u32 (nlen ser)) as [n| |] eqn:Eu; cbn [pbind]; try discriminate.
    apply to_u32_inv in Eu. destruct Eu as [-> Hb].
    intros H. inversion H; subst. rewrite parse_fragment_spec by exact Hr.
    unfold qf_text. cbn [qf_qtext qf_ftext qf_qs qf_fs app nlen length opt_le opt_clean].
    rewrite <- app_assoc. repeat split; try assumption; try (f_equal; unfold nlen; cbn; lia).
    apply frag_of_clean. exact Hr.
  - destruct (c =? 63) eqn:E63; [|discriminate].
    destruct (to_u32 (nlen ser)) as [n| |] eqn:Eu; cbn [pbind]; try discriminate.
    apply to_u32_inv in Eu. destruct Eu as [-> Hb].
    unfold parse_query. rewrite Henc. cbn [ctx_eqb].
    rewrite parse_query_loop_spec by (try constructor; exact Hr). cbn [rev app].
    fold (query_of st r).
    destruct (query_rest true r) as [r2|] eqn:Eq.
    + pose proof (usv_query_rest true r r2 Hr Eq) as Hr2.
      destruct (to_u32 (nlen ((ser ++ [63]) ++ query_of st r))) as [n| |] eqn:Eu2; cbn [pbind]; try discriminate.
      apply to_u32_inv in Eu2. destruct Eu2 as [-> Hb2].
      intros H. inversion H; subst. rewrite parse_fragment_spec by exact Hr2.
      unfold qf_text. cbn [option_map qf_qtext qf_ftext qf_qs qf_fs opt_le opt_clean].
      rewrite !nlen_app in *. rewrite nlen_cons.
      repeat split; try assumption;
        try (apply query_of_clean; exact Hr); try (apply frag_of_clean; exact Hr2);
        try (rewrite <- !app_assoc; reflexivity);
        try (f_equal; unfold nlen in *; cbn [length] in *; lia);
        try (unfold nlen in *; cbn [length] in *; lia).
    + intros H. inversion H; subst.
      unfold qf_text. cbn [option_map qf_qtext qf_ftext qf_qs qf_fs opt_le opt_clean].
      rewrite app_nil_r, <- app_assoc. repeat split; try assumption.
      apply query_of_clean. exact Hr.
Qed.



Theorem pqf_canon ser q f :
  query_enc ovr (nfirstn se (ser ++ [63])) = utf8_encode ->
  opt_clean (query_set st) q -> opt_clean T_FRAGMENT f ->
  opt_le (qf_qs (nlen ser) q) U32_MAX_P -> opt_le (qf_fs (nlen ser) q f) U32_MAX_P ->
  parse_query_and_fragment ovr CUrlParser st se ser (qf_text q f)
  = POk (ser ++ qf_text q f, qf_qs (nlen ser) q, qf_fs (nlen ser) q f).
Proof.
  intros Henc Hq Hf Bq Bf. unfold parse_query_and_fragment, qf_text.
  assert (forall s y, f = Some y -> parse_fragment (s ++ [35]) y = (s ++ [35]) ++ y) as HF.
  { intros s y ->. rewrite parse_fragment_spec by exact (clean_usv _ y Hf). rewrite frag_of_canon by exact Hf. reflexivity. }
  destruct q as [x|]; cbn [qf_qtext qf_qs opt_clean opt_le app] in *.
  - (* the query state runs up to the '#' of the fragment, or to the end *)
    rewrite inp_next_cons by reflexivity.
    replace (63 =? 35) with false by reflexivity. replace (63 =? 63) with true by reflexivity.
    rewrite to_u32_ok by exact Bq. cbn [pbind].
    assert (usv_list (x ++ qf_ftext f)) as Hu
      by (apply usv_app; split; [exact (clean_usv _ x Hq) | exact (ascii_usv _ (qf_text_ascii T_FRAGMENT None f I Hf))]).
    unfold parse_query. rewrite Henc. cbn [ctx_eqb].
    rewrite parse_query_loop_spec by (try constructor; exact Hu). cbn [rev app].
    fold (query_of st (x ++ qf_ftext f)).
    destruct (query_of_canon st x Hq) as (C1 & C2 & Hc).
    destruct f as [y|]; cbn [qf_ftext qf_fs opt_le] in *.
    + destruct (Hc y) as [D1 D2]. rewrite D1, D2.
      assert (nlen ((ser ++ [63]) ++ x) = nlen ser + nlen (63 :: x)) as El.
      { rewrite !nlen_app, nlen_cons. unfold nlen. cbn [length]. lia. }
      rewrite El, to_u32_ok by exact Bf. cbn [pbind]. rewrite (HF _ y eq_refl), <- !app_assoc. reflexivity.
    + rewrite app_nil_r, C1, C2, <- !app_assoc. reflexivity.
  - destruct f as [y|]; cbn [qf_ftext qf_fs opt_le app] in *; [|rewrite app_nil_r; reflexivity].
    rewrite inp_next_cons by reflexivity. replace (35 =? 35) with true by reflexivity.
    rewrite N.add_0_r in *. rewrite to_u32_ok by exact Bf. cbn [pbind]. rewrite (HF _ y eq_refl), <- !app_assoc. reflexivity.
Qed.
End QF.

(* behind ser the query state writes clean query and fragment text: known here when the encoder is UTF-8
   (pqf_out), in C02_Ovr for every encoding override *)
Definition qf_spec (ovr : option (list N -> list N)) (st : scheme_type) (se : N) (ser : list N) : Prop :=
  forall l s' qs fs, usv_list l -> parse_query_and_fragment ovr CUrlParser st se ser l = POk (s', qs, fs) ->
  exists q f, s' = ser ++ qf_text q f
  /\ qs = qf_qs (nlen ser) q /\ fs = qf_fs (nlen ser) q f
  /\ opt_le qs U32_MAX_P /\ opt_le fs U32_MAX_P
  /\ opt_clean (query_set st) q /\ opt_clean T_FRAGMENT f.

Lemma qf_spec_utf8 ovr st se ser : query_enc ovr (nfirstn se (ser ++ [63])) = utf8_encode -> qf_spec ovr st se ser.
Proof. intros He l s' qs fs Hl H. exists (pqf_q st l), (pqf_f l). exact (pqf_out ovr st se ser l s' qs fs Hl He H). Qed.

Definition is_qh (c : N) : bool := (c =? 63) || (c =? 35).

Lemma qf_text_qh q f : match qf_text q f with [] => True | c :: _ => is_qh c = true /\ is_tnl c = false end.
Proof. destruct q; destruct f; cbn; auto. Qed.

Fixpoint cbb_chars (l : list N) : list N :=
  match l with
  | [] => []
  | c :: r => if is_tnl c then cbb_chars r else if is_qh c then [] else c :: cbb_chars r
  end.
Fixpoint cbb_rest (l : list N) : list N :=
  match l with
  | [] => []
  | c :: r => if is_tnl c then cbb_rest r else if is_qh c then l else cbb_rest r
  end.

Lemma usv_cbb_chars l : usv_list l -> usv_list (cbb_chars l).
Proof.
  induction l as [|c r IH]; intros H; [constructor|].
  apply usv_cons in H. destruct H as [Hc Hr]. cbn [cbb_chars].
  destruct (is_tnl c); [exact (IH Hr)|]. destruct (is_qh c); [constructor|].
  apply usv_cons. split; [exact Hc | exact (IH Hr)].
Qed.

Lemma usv_cbb_rest l : usv_list l -> usv_list (cbb_rest l).
Proof.
  induction l as [|c r IH]; intros H; [constructor|].
  pose proof H as H0. apply usv_cons in H. destruct H as [Hc Hr]. cbn [cbb_rest].
  destruct (is_tnl c); [exact (IH Hr)|]. destruct (is_qh c); [exact H0 | exact (IH Hr)].
Qed.

Theorem cbb_spec l : forall ser, usv_list l ->
  parse_cannot_be_a_base_path CUrlParser ser l
  = (ser ++ encode T_CONTROLS (utf8_encode (cbb_chars l)), cbb_rest l).
Proof.
  induction l as [|c r IH]; intros ser H.
  - cbn. rewrite app_nil_r. reflexivity.
  - apply usv_cons in H. destruct H as [Hc Hr]. cbn [parse_cannot_be_a_base_path cbb_chars cbb_rest].
    destruct (is_tnl c); [apply IH; exact Hr|].
    cbn [ctx_eqb]. rewrite andb_true_r. fold (is_qh c). destruct (is_qh c).
    + cbn. rewrite app_nil_r. reflexivity.
    + rewrite IH by exact Hr. rewrite push_encoded_eq by (constructor; [exact Hc | constructor]).
      rewrite <- app_assoc. change (c :: cbb_chars r) with ([c] ++ cbb_chars r).
      rewrite enc_utf8_app. reflexivity.
Qed.

(* the remainder is empty or starts with '?' / '#' *)
Lemma cbb_rest_head l : match cbb_rest l with [] => True | c :: _ => is_qh c = true /\ is_tnl c = false end.
Proof.
  induction l as [|c r IH]; [exact I|]. cbn [cbb_rest].
  destruct (is_tnl c) eqn:Et; [exact IH|]. destruct (is_qh c) eqn:Eq; [split; assumption | exact IH].
Qed.

Definition not_tnl_qh (c : N) : bool := not_tnl c && negb (is_qh c).

Lemma cbb_canon t rest : forallb not_tnl_qh t = true ->
  match rest with [] => True | c :: _ => is_qh c = true /\ is_tnl c = false end ->
  cbb_chars (t ++ rest) = t /\ cbb_rest (t ++ rest) = rest.
Proof.
  intros Ht Hr. induction t as [|c t IH].
  - cbn [app]. destruct rest as [|c r]; [split; reflexivity|]. destruct Hr as [Hq Hn].
    cbn [cbb_chars cbb_rest]. rewrite Hn, Hq. split; reflexivity.
  - cbn [forallb] in Ht. apply andb_true_iff in Ht. destruct Ht as [H1 H2].
    destruct (IH H2) as [I1 I2]. unfold not_tnl_qh, not_tnl in H1.
    assert (is_tnl c = false) as Et by (destruct (is_tnl c); [discriminate | reflexivity]).
    assert (is_qh c = false) as Eq by (rewrite Et in H1; cbn [negb andb] in H1; destruct (is_qh c); [discriminate|reflexivity]).
    cbn [app cbb_chars cbb_rest]. rewrite Et, Eq, I1, I2. split; reflexivity.
Qed.

(* the characters of the opaque path are neither '?' nor '#' nor ignorable *)
Lemma cbb_chars_no_qh l : forallb not_tnl_qh (cbb_chars l) = true.
Proof.
  induction l as [|c r IH]; [reflexivity|]. cbn [cbb_chars].
  destruct (is_tnl c) eqn:Et; [exact IH|]. destruct (is_qh c) eqn:Eq; [reflexivity|].
  cbn [forallb]. rewrite IH. unfold not_tnl_qh, not_tnl. rewrite Et, Eq. reflexivity.
Qed.

Definition opaque_of (l : list N) : list N := encode T_CONTROLS (utf8_encode (cbb_chars l)).

Lemma opaque_of_clean l : usv_list l -> clean T_CONTROLS (opaque_of l) = true.
Proof.
  intros H. apply encode_is_clean; [exact stable_CONTROLS|]. apply utf8_encode_bytes. apply usv_cbb_chars. exact H.
Qed.

Lemma hex_not_qh d : d < 16 -> not_tnl_qh (hex_upper d) = true.
Proof. intros H. unfold not_tnl_qh, not_tnl, is_tnl, is_qh, hex_upper. destruct (d <? 10) eqn:E; lia. Qed.

Lemma opaque_of_no_qh l : usv_list l -> forallb not_tnl_qh (opaque_of l) = true.
Proof.
  intros H. apply encode_utf8_forallb; [reflexivity | exact hex_not_qh | apply usv_cbb_chars; exact H|].
  apply Forall_forall. intros c Hin _.
  pose proof (cbb_chars_no_qh l) as Hq. rewrite forallb_forall in Hq. exact (Hq c Hin).
Qed.

(* first byte of the encoded form of a string that does not start with '/' is not '/' *)
Lemma encode_utf8_head S c r x : is_usv c -> c <> 47 ->
  starts_with [47] (encode S (utf8_encode (c :: r)) ++ x) = false.
Proof.
  intros Hc Hne. change (c :: r) with ([c] ++ r). rewrite enc_utf8_app.
  unfold utf8_encode at 1. cbn [flat_map]. rewrite app_nil_r.
  assert (exists b0 t, utf8_encode1 c = b0 :: t /\ (b0 < 128 -> b0 = c)) as (b0 & t & Eb & Hb).
  { unfold utf8_encode1. destruct (c <? 128) eqn:E1; [eexists; eexists; split; [reflexivity | tauto]|].
    destruct (c <? 2048) eqn:E2; [eexists; eexists; split; [reflexivity | lia]|].
    destruct (c <? 65536) eqn:E3; eexists; eexists; (split; [reflexivity | unfold is_usv in Hc; lia]). }
  rewrite Eb. rewrite encode_cons. unfold enc1. destruct (should_encode S b0) eqn:E.
  - unfold enc_byte_spec. cbn [app starts_with]. replace (47 =? 37) with false by reflexivity. reflexivity.
  - cbn [app starts_with].
    assert (b0 < 128) as Hlt by (apply (kept_ascii S); unfold kept; rewrite E; reflexivity).
    rewrite (Hb Hlt). replace (47 =? c) with false by lia. reflexivity.
Qed.

Theorem opaque_of_canon t rest : clean T_CONTROLS t = true -> forallb not_tnl_qh t = true ->
  match rest with [] => True | c :: _ => is_qh c = true /\ is_tnl c = false end ->
  opaque_of (t ++ rest) = t /\ cbb_rest (t ++ rest) = rest.
Proof.
  intros Hc Hq Hr. destruct (cbb_canon t rest Hq Hr) as [C1 C2]. split; [|exact C2].
  unfold opaque_of. rewrite C1. exact (encode_utf8_clean T_CONTROLS t Hc).
Qed.
