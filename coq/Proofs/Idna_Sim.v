(* Proofs/Idna_Sim.v - the vocabulary of the simulation of the fail-fast run of the UTS #46 model by the
   mark-errors run (DESIGN Appendix B.4): the relations R (the two runs from a state without errors) and M (the marking
   run never exits and keeps had_errors), their composition along sbind, the two branches of label_nonempty
   (complexF / complexT) and the premise Redisc.  The simulation itself is Proofs/Idna_SimRun.v. *)
From RU Require Import Base.Prelude Base.Utf8 Base.U32_c13 Gen.Tables Model.Punycode Model.Uts46.

Section Rel.
Context {X : Type} (he_of : X -> bool).
Definition R (rt rf : step X) : Prop :=
  match rf with
  | SOk x => if he_of x then rt = SExit else rt = SOk x
  | SExit => False
  | SPanic s => rt = SExit \/ rt = SPanic s
  end.
Definition M (rf : step X) : Prop :=
  match rf with SOk x => he_of x = true | SExit => False | SPanic _ => True end.
End Rel.

Definition he2 (x : list N * bool) : bool := snd x.
Definition he3 {B C : Type} (x : B * bool * C) : bool := snd (fst x).

Lemma R_bind {X Y} (hx : X -> bool) (hy : Y -> bool) rt rf (kt kf : X -> step Y) :
  R hx rt rf ->
  (forall x, hx x = false -> R hy (kt x) (kf x)) ->
  (forall x, hx x = true -> M hy (kf x)) ->
  R hy (sbind rt kt) (sbind rf kf).
Proof.
  intros HR Hk Hm. destruct rf as [x| |s]; cbn [R sbind] in *.
  - destruct (hx x) eqn:E.
    + subst rt. cbn [sbind]. specialize (Hm x E). destruct (kf x) as [y| |s]; cbn [M R] in *.
      * rewrite Hm. reflexivity.
      * exact Hm.
      * left; reflexivity.
    + subst rt. cbn [sbind]. apply Hk. exact E.
  - contradiction.
  - destruct HR as [-> | ->]; cbn [sbind]; [left|right]; reflexivity.
Qed.

Lemma M_bind {X Y} (hx : X -> bool) (hy : Y -> bool) rf (kf : X -> step Y) :
  M hx rf -> (forall x, hx x = true -> M hy (kf x)) -> M hy (sbind rf kf).
Proof.
  intros HM Hk. destruct rf as [x| |s]; cbn [M sbind] in *; auto.
Qed.

Lemma R_ok {X} (hx : X -> bool) x : hx x = false -> R hx (SOk x) (SOk x).
Proof. intros E. cbn [R]. rewrite E. reflexivity. Qed.
Lemma R_exit {X} (hx : X -> bool) x : hx x = true -> R hx SExit (SOk x).
Proof. intros E. cbn [R]. rewrite E. reflexivity. Qed.
Lemma R_panic {X} (hx : X -> bool) s : R hx (SPanic s) (SPanic s).
Proof. cbn [R]. right; reflexivity. Qed.
Lemma R_exit_of_M {X} (hx : X -> bool) rf : M hx rf -> R hx SExit rf.
Proof. destruct rf as [x| |s]; cbn [M R]; intros H; [rewrite H; reflexivity | exact H | left; reflexivity]. Qed.

(* a generic error site *)
Ltac site := first [ apply R_ok; reflexivity | apply R_exit; reflexivity | apply R_panic | (cbn [R]; left; reflexivity) ].

Ltac he_intro := let l := fresh "l" in let h := fresh "h" in let E := fresh "E" in
  intros [l h] E; cbn [he2 snd] in E; subst h.
Ltac msite := first [ reflexivity | exact I ].

Section WithAdapter.
Variable A : adapter.
Variable cfg : bool.

Definition heT (x : list N * bool * list aal) : bool := snd (fst x).

Definition complexF ff hy deny (db : list N) he ap (ascii non_ascii : list N) : step (list N * bool * list aal) :=
  sbind (scan_mark ff is_fffd (map (apply_upper deny) ascii) he)
    (fun x : list N * bool => let (cur, he) := x in
     let (s, rest) := split1 DOT (map (apply_lower deny) (map_normalize A (utf8_lossy non_ascii))) in
     sublabels A cfg ff hy (N.lor deny DOT_MASK) s rest db cur he (ap ++ [AalOther])
       match ascii with [] => true | _ :: _ => false end
       match non_ascii with [] => false | _ :: _ => true end).
Definition complexT ff hy deny label (db : list N) he (ap : list aal) (ascii : list N) : step (list N * bool * list aal) :=
  sbind (scan_mark ff is_fffd (map (apply_upper deny) ascii) he)
    (fun x : list N * bool => let (cur, he) := x in
     sbind (if negb (hy_is_allow hy) then check_hyphens ff (hy_is_cfl hy) cur he else SOk (cur, he))
       (fun x0 : list N * bool => let (cur0, he0) := x0 in
        SOk (db ++ cur0, he0, ap ++ [if he0 then AalOther else MixedCaseAscii label]))).

Lemma label_nonempty_eq ff hy deny label db he ap :
  label_nonempty A cfg ff hy deny label db he ap =
  let (ascii, non_ascii) := split_ascii_fast_path_prefix label in
  match non_ascii with
  | [] =>
      if has_punycode_prefix ascii then
        if negb match last_opt ascii with Some l => l =? HYPHEN | None => false end
           && (len ascii - 4 <=? PUNYCODE_DECODE_MAX_INPUT_LENGTH) then
          match decode_with cfg U8Internal (skipn 4 ascii) with
          | Ok decoded =>
              sbind (after_punycode_decode A ff (N.lor deny DOT_MASK) decoded he) (fun x => let (cur, he) := x in
              sbind (check_label A cfg ff hy cur he true true) (fun x => let (cur, he) := x in
              SOk (db ++ cur, he, ap ++ [MixedCasePunycode label])))
          | Err => if ff then SExit
                   else SOk (db ++ FFFD :: map (apply_upper deny) (tl ascii), true, ap ++ [MixedCasePunycode label])
          | Panic s => SPanic s
          end
        else if ff then SExit else complexF ff hy deny db he ap ascii non_ascii
      else complexT ff hy deny label db he ap ascii
  | _ => complexF ff hy deny db he ap ascii non_ascii
  end.
Proof.
  unfold label_nonempty, complexF, complexT.
  destruct (split_ascii_fast_path_prefix label) as [ascii non_ascii]. reflexivity.
Qed.

(* the corner of lines 1187-1196: an all-ASCII xn-- label that ends in '-' or is longer than the
   decoder cap makes the fail-fast run return at once, the marking run "falls through to the complex
   path and rediscovers the error there".  Redisc states that it does. *)
Definition Redisc (deny : N) : Prop := forall hy db ap ascii,
  Forall (fun b => b < 128) ascii ->
  has_punycode_prefix ascii = true ->
  negb match last_opt ascii with Some l => l =? HYPHEN | None => false end
    && (len ascii - 4 <=? PUNYCODE_DECODE_MAX_INPUT_LENGTH) = false ->
  M heT (complexF false hy deny db false ap ascii []).

Lemma position_none f l : position f l = None -> Forall (fun b => f b = false) l.
Proof.
  induction l as [|x r IH]; intros H; [constructor|]. cbn [position] in H.
  destruct (f x) eqn:E; [discriminate|]. destruct (position f r); [discriminate|]. constructor; auto.
Qed.
Lemma position_lt f l i : position f l = Some i -> (i < List.length l)%nat.
Proof.
  revert i. induction l as [|x r IH]; intros i H; [discriminate|]. cbn [position] in H.
  destruct (f x); [inversion H; cbn [List.length]; lia|].
  destruct (position f r) as [j|]; [|discriminate]. inversion H. cbn [List.length]. specialize (IH j eq_refl). lia.
Qed.
Lemma split_ascii_all label ascii :
  split_ascii_fast_path_prefix label = (ascii, []) -> Forall (fun b => b < 128) ascii.
Proof.
  unfold split_ascii_fast_path_prefix. destruct (position (fun b => negb (is_ascii_cp b)) label) as [[|p]|] eqn:E.
  - intros H. inversion H. subst. discriminate E.
  - intros H. inversion H as [[H1 H2]]. apply position_lt in E.
    assert (Hl : List.length (skipn p label) = 0%nat) by (rewrite H2; reflexivity).
    rewrite skipn_length in Hl. lia.
  - intros H. inversion H. subst. apply position_none in E.
    eapply Forall_impl; [|exact E]. cbv beta. unfold is_ascii_cp. intros a Ha. lia.
Qed.

Definition heN (x : list N * bool * nstate) : bool := snd (fst x).

Definition heC (x : N * bool) : bool := snd x.

Definition heL (x : list (list N) * bool) : bool := snd x.

Definition inner_sim (rt rf : inner_res) : Prop :=
  match rf with
  | IRes ptu b he db ap => if he then rt = I_EXIT else rt = IRes ptu b false db ap
  | IPanic s => rt = I_EXIT \/ rt = IPanic s
  end.

End WithAdapter.
