(* Proofs/Idna_C10c_Drun.v - what an error-free fail-fast run of process_inner leaves behind, label by label.
   Every label of domain_buffer is paired with its already_punycode entry (PairOK):
     MixedCaseAscii m     the label is the deny-list mapping of the accepted all-ASCII input label m;
     MixedCasePunycode m  the label is the accepted, normalised decoding of the input label m = xn--..., and is not ASCII;
     other                the label is fixed by normalize_validate, all its characters pass the deny list, it passes
                          check_label with both optional checks on, and if it is ASCII it has no xn-- prefix.
   Adapter premises (each sampled on the real idna_adapter by the `adapter` stream of the harness): AdapterOK (field ok_stable),
   AdapterUSV, NvNoTrunc, NvIdem, AsciiNoMark and MapPrefix (map_normalize of an ASCII text followed by a text that
   starts with an ASCII character is the lower-cased ASCII text followed by map_normalize of the rest). *)
From RU Require Import Base.Prelude Base.Utf8 Base.U32_c13 Gen.Tables Model.Punycode Model.Uts46
  Proofs.C13_Ascii Proofs.Idna_Sim Proofs.Idna_Api Proofs.Idna_Known Proofs.Idna_Hyp Proofs.Idna_Redisc
  Proofs.Idna_C10_Deny Proofs.Idna_C10_Puny Proofs.Idna_C10_Prefix Proofs.Idna_C10_Inner Proofs.Idna_C10_Walk
  Proofs.Idna_C10b_Long Proofs.Idna_C10b_AsciiInner Proofs.Idna_C10b_AsciiWalk Proofs.Idna_C10b_Stmt
  Proofs.Idna_WalkFun Proofs.Idna_WalkEnc Proofs.Idna_C10c_Puny Proofs.Idna_C10c_Start Proofs.Idna_Mark.

Definition MapPrefix (A : adapter) : Prop := forall a c r, is_ascii_l a = true -> c < 128 ->
  map_normalize A (a ++ c :: r) = map to_lower a ++ map_normalize A (c :: r).

(* gc dd c: the character c passes the deny list dd (apply_lower does not replace it by U+FFFD) *)
Definition gc (dd c : N) : Prop := apply_lower dd c <> FFFD.
Lemma gc_id dd c : gc dd c -> apply_lower dd c = c.
Proof. exact (apply_lower_id dd c). Qed.
Lemma gc_nf dd c : gc dd c -> c <> FFFD.
Proof.
  intros H E. apply H. subst c. unfold apply_lower, FFFD, REPLACEMENT. reflexivity.
Qed.
Lemma gc_map dd l : Forall (gc dd) l -> map (apply_lower dd) l = l /\ fffd l = false.
Proof.
  induction 1 as [|c r Hc _ [IH1 IH2]]; [split; reflexivity|]. cbn [map]. rewrite IH1, (gc_id dd c Hc). split; [reflexivity|].
  unfold fffd in *. cbn [existsb]. rewrite IH2. unfold is_fffd. pose proof (gc_nf dd c Hc). replace (c =? FFFD) with false by lia. reflexivity.
Qed.
Lemma gc_of_scan dd l : existsb is_fffd (map (apply_lower dd) l) = false -> Forall (gc dd) l.
Proof.
  intros H. apply Forall_forall. intros c Hc E.
  pose proof (existsb_false_in is_fffd _ (apply_lower dd c) H (in_map _ _ _ Hc)) as Hx. unfold is_fffd in Hx. rewrite E, N.eqb_refl in Hx. discriminate.
Qed.
Lemma gc_nodot deny c : gc (N.lor deny DOT_MASK) c -> c <> DOT.
Proof. intros H. rewrite <- (gc_id _ _ H). apply apply_lower_dd_nodot. Qed.
Lemma gc_all_nodot deny l : Forall (gc (N.lor deny DOT_MASK)) l -> nodot l.
Proof. intros H. unfold nodot. eapply Forall_impl; [|exact H]. intros c. apply gc_nodot. Qed.
Lemma gc_okc deny m c : gc (N.lor deny m) c -> okc deny c.
Proof. intros H. rewrite <- (gc_id _ _ H). apply apply_lower_okc. Qed.
Lemma gc_noupper deny m c : DenyUpper deny -> gc (N.lor deny m) c -> is_upper c = false.
Proof.
  intros HU H. destruct (is_upper c) eqn:E; [|reflexivity]. pose proof (gc_okc deny m c H) as Ho.
  assert (Hc : c < 128) by (unfold is_upper in E; lia). specialize (Ho Hc). rewrite (HU c E) in Ho. discriminate.
Qed.
Lemma gc_all_noupper deny m l : DenyUpper deny -> Forall (gc (N.lor deny m)) l -> existsb is_upper l = false.
Proof.
  intros HU. induction 1 as [|c r Hc _ IH]; [reflexivity|]. cbn [existsb]. rewrite (gc_noupper deny m c HU Hc), IH. reflexivity.
Qed.

Lemma dot_mask_other : all_below 128 (fun c => implb (negb (c =? DOT)) (N.land DOT_MASK (N.shiftl 1 c) =? 0)) = true.
Proof. vm_compute. reflexivity. Qed.
Lemma gc_lift deny c : gc deny c -> c <> DOT -> gc (N.lor deny DOT_MASK) c.
Proof.
  unfold gc, apply_lower. intros H Hd. destruct (c <? 128) eqn:E; [|exact H].
  destruct (N.land deny (N.shiftl 1 c) =? 0) eqn:E2; [|contradiction H; reflexivity].
  rewrite N.land_lor_distr_l. apply N.eqb_eq in E2. rewrite E2.
  assert (Hx : (N.land DOT_MASK (N.shiftl 1 c) =? 0) = true).
  { apply (sweep_pos _ _ dot_mask_other c); [lia|]. apply negb_true_iff. apply N.eqb_neq. exact Hd. }
  rewrite N.lor_0_l, Hx. exact H.
Qed.
Lemma gc_clean deny m c : c < 128 -> gc (N.lor deny m) c -> clean deny c.
Proof. intros Hc H. apply okc_clean; [exact Hc|exact (gc_okc deny m c H)]. Qed.

Lemma position_S (f : N -> bool) l : forall p, position f l = Some (Datatypes.S p) -> exists c r, skipn p l = c :: r /\ f c = false.
Proof.
  induction l as [|x r IH]; intros p H; [discriminate|]. cbn [position] in H.
  destruct (f x) eqn:Ef; [discriminate|]. destruct (position f r) as [i|] eqn:Ep; [|discriminate].
  inversion H. subst i. destruct p as [|p']; [exists x, r; split; [reflexivity|exact Ef]|].
  destruct (IH p' eq_refl) as (c & r' & Hs & Hc). exists c, r'. split; [exact Hs|exact Hc].
Qed.
Lemma split_ascii_head label a n : split_ascii_fast_path_prefix label = (a, n) -> a <> [] -> n <> [] ->
  exists c r, n = c :: r /\ c < 128.
Proof.
  unfold split_ascii_fast_path_prefix. destruct (position (fun b => negb (is_ascii_cp b)) label) as [[|p]|] eqn:E; intros H Ha Hn;
    inversion H; subst; try (contradiction Ha; reflexivity); try (contradiction Hn; reflexivity).
  destruct (position_S _ _ _ E) as (c & r & Hs & Hc). exists c, r. split; [exact Hs|].
  apply negb_false_iff in Hc. unfold is_ascii_cp in Hc. lia.
Qed.
Lemma utf8_lossy_ascii_head c r : c < 128 -> utf8_lossy (c :: r) = c :: utf8_lossy r.
Proof. intros H. unfold utf8_lossy. cbn [utf8_scan]. replace (c <? 128) with true by lia. reflexivity. Qed.

Lemma split1_app_nodot a l : nodot a -> split1 DOT (a ++ l) = (a ++ fst (split1 DOT l), snd (split1 DOT l)).
Proof.
  induction 1 as [|x r Hx _ IH]; [cbn [app]; destruct (split1 DOT l); reflexivity|].
  cbn [app split1]. rewrite IH. replace (x =? DOT) with false by lia. reflexivity.
Qed.
Lemma lower_nodot l : nodot l -> nodot (map to_lower l).
Proof.
  unfold nodot. induction 1 as [|x r Hx _ IH]; [constructor|]. cbn [map]. constructor; [|exact IH].
  intros E. apply Hx. pose proof (to_lower_dot x) as Hd. rewrite E, N.eqb_refl in Hd. symmetry in Hd. apply N.eqb_eq in Hd. exact Hd.
Qed.
Lemma zip_mark_refl l : zip_mark l l = None.
Proof. induction l as [|x r IH]; [reflexivity|]. cbn [zip_mark]. rewrite N.eqb_refl, IH. reflexivity. Qed.
Lemma Forall2_repeat {X Y} (P : X -> Y -> Prop) (y : Y) l : Forall (fun x => P x y) l -> Forall2 P l (repeat y (length l)).
Proof. induction 1; cbn [length repeat]; constructor; assumption. Qed.
Lemma is_ascii_l_false_in l c : In c l -> 128 <= c -> is_ascii_l l = false.
Proof.
  intros Hin Hc. destruct (is_ascii_l l) eqn:E; [|reflexivity]. unfold is_ascii_l in E. rewrite forallb_forall in E.
  specialize (E c Hin). unfold is_ascii_cp in E. lia.
Qed.
Lemma is_ascii_l_spec l : is_ascii_l l = true -> Forall (fun b => b < 128) l.
Proof.
  intros H. unfold is_ascii_l in H. rewrite forallb_forall in H. apply Forall_forall. intros x Hx.
  specialize (H x Hx). unfold is_ascii_cp in H. lia.
Qed.

Section Drun.
Variable A : adapter.
Variable cfg : bool.
Variable deny : N.
Variable hy : hyphens.
Hypothesis HU : DenyUpper deny.
Hypothesis HL : LdhFree deny.
Hypothesis HOK : AdapterOK A.
Hypothesis HUSV : AdapterUSV A.
Hypothesis HNT : NvNoTrunc A.
Hypothesis HNI : NvIdem A.
Hypothesis HNM : AsciiNoMark A.
Hypothesis HMP : MapPrefix A.

Definition dd : N := N.lor deny DOT_MASK.
Definition chk (dbl : list N) : Prop := check_label A cfg true hy dbl false true true = SOk (dbl, false).
Definition puny_cond (m : list N) : bool :=
  negb (match last_opt m with Some l => l =? HYPHEN | None => false end) && (len m - 4 <=? PUNYCODE_DECODE_MAX_INPUT_LENGTH).

Inductive PairOK : list N -> aal -> Prop :=
| pk_ascii m : an_label m -> nodot m -> lab_acc deny hy m = true -> PairOK (cmap deny m) (MixedCaseAscii m)
| pk_puny m dec dbl : Forall (fun b => b < 128) m -> nodot m -> has_punycode_prefix m = true -> puny_cond m = true ->
    decode_with cfg U8Internal (skipn 4 m) = Ok dec ->
    after_punycode_decode A true dd dec false = SOk (dbl, false) -> chk dbl -> is_ascii_l dbl = false ->
    PairOK dbl (MixedCasePunycode m)
| pk_other dbl : normalize_validate A dbl = dbl -> Forall (gc dd) dbl -> chk dbl -> usv_list dbl ->
    (is_ascii_l dbl = true -> has_punycode_prefix dbl = false) -> PairOK dbl AalOther.

Lemma apd_inv dec dbl he' : after_punycode_decode A true dd dec false = SOk (dbl, he') ->
  he' = false /\ dbl = normalize_validate A dec /\ Forall (gc dd) dbl /\ zip_mark dbl dec = None.
Proof.
  unfold after_punycode_decode. intros H.
  apply sbind_ok in H. destruct H as ([nz h1] & H1 & H).
  apply scan_true in H1. destruct H1 as (-> & -> & Hf).
  destruct (zip_mark (map (apply_lower dd) (normalize_validate A dec)) dec) as [mk|] eqn:Ez; [discriminate|].
  inversion H. subst dbl he'. pose proof (gc_of_scan dd _ Hf) as Hg. destruct (gc_map dd _ Hg) as [Hm _].
  rewrite Hm in *. repeat split; assumption.
Qed.

Lemma apd_nonascii dec dbl : dbl = normalize_validate A dec -> zip_mark dbl dec = None ->
  (exists c, In c dec /\ 128 <= c) -> is_ascii_l dbl = false.
Proof.
  intros Hd Hz (c & Hin & Hc). apply (is_ascii_l_false_in dbl c); [|exact Hc].
  destruct (zip_mark_none _ _ Hz) as [[t Ht]|[t Ht]].
  - rewrite Hd in Ht. pose proof (HNT dec t Ht) as ->. rewrite app_nil_r in Ht. rewrite Hd, <- Ht. exact Hin.
  - rewrite Ht. apply in_or_app. left. exact Hin.
Qed.

Lemma apd_stable dbl : normalize_validate A dbl = dbl -> Forall (gc dd) dbl ->
  after_punycode_decode A true dd dbl false = SOk (dbl, false).
Proof.
  intros Hn Hg. unfold after_punycode_decode. rewrite Hn. destruct (gc_map dd dbl Hg) as [Hm Hf]. rewrite Hm.
  rewrite (scan_mark_none true is_fffd dbl false Hf). cbn [sbind]. rewrite zip_mark_refl. reflexivity.
Qed.

Lemma chk_fcm x r : check_label A cfg true hy x false false true = SOk r ->
  match x with [] => True | c :: _ => c < 128 end -> check_label A cfg true hy x false true true = SOk r.
Proof.
  intros H Hx. unfold check_label in *. destruct (hy_is_allow hy); cbn [negb] in *.
  - cbn [sbind] in *. destruct x as [|c t]; [exact H|]. cbv iota. rewrite (HNM c Hx). exact H.
  - rewrite check_hyphens_ff in *. destruct (hyphen_free (hy_is_cfl hy) x); cbn [sbind] in *; [|discriminate].
    destruct x as [|c t]; [exact H|]. cbv iota. rewrite (HNM c Hx). exact H.
Qed.

(* the parts of an accepted check_label that the second run needs *)
Lemma chk_hyphens dbl : chk dbl -> hy_is_allow hy || hyphen_free (hy_is_cfl hy) dbl = true.
Proof.
  unfold chk, check_label. intros H. destruct (hy_is_allow hy); [reflexivity|]. cbn [negb orb] in *.
  rewrite check_hyphens_ff in H. destruct (hyphen_free (hy_is_cfl hy) dbl); [reflexivity|discriminate].
Qed.
Lemma chk_len dbl : chk dbl -> is_ascii_l dbl = false -> len dbl <= PUNYCODE_ENCODE_MAX_INPUT_LENGTH.
Proof.
  unfold chk. intros H Hna. unfold check_label in H.
  apply sbind_ok in H. destruct H as ([l1 h1] & H1 & H).
  assert (E1 : l1 = dbl /\ h1 = false).
  { destruct (negb (hy_is_allow hy)); [exact (check_hyphens_true _ _ _ _ _ H1)|inversion H1; split; reflexivity]. }
  destruct E1 as [-> ->]. clear H1.
  apply sbind_ok in H. destruct H as ([l2 h2] & H2 & H).
  assert (E2 : l2 = dbl /\ h2 = false).
  { destruct dbl as [|f r]; [inversion H2; split; reflexivity|].
    destruct (is_mark A f); [discriminate|inversion H2; split; reflexivity]. }
  destruct E2 as [-> ->]. clear H2.
  apply sbind_ok in H. destruct H as ([l3 h3] & H3 & H).
  apply contextj_true in H3. cbn [rev app] in H3. destruct H3 as [-> ->].
  rewrite Hna in H. cbn [negb andb] in H.
  destruct (PUNYCODE_ENCODE_MAX_INPUT_LENGTH <? len dbl) eqn:E; [discriminate|]. lia.
Qed.

Lemma xn_shape x : starts_with x XN_PREFIX = true -> exists r, x = 120 :: 110 :: 45 :: 45 :: r.
Proof.
  unfold XN_PREFIX. destruct x as [|a [|b [|c [|d r]]]]; cbn [starts_with]; intros H; try (rewrite ?andb_false_r in H; discriminate).
  apply andb_true_iff in H. destruct H as [Ha H]. apply andb_true_iff in H. destruct H as [Hb H].
  apply andb_true_iff in H. destruct H as [Hc H]. apply andb_true_iff in H. destruct H as [Hd _].
  apply N.eqb_eq in Ha, Hb, Hc, Hd. subst. exists r. reflexivity.
Qed.

Lemma es_inv x f dbl he' : end_sublabel A cfg true hy dd x false f true = SOk (dbl, he') ->
  he' = false /\
  ((starts_with x XN_PREFIX = false /\ dbl = x /\ check_label A cfg true hy x false f true = SOk (x, false)) \/
   (exists r dec, x = 120 :: 110 :: 45 :: 45 :: r /\ r <> [] /\ last_opt r <> Some HYPHEN /\
      decode_with cfg CharInternal r = Ok dec /\ after_punycode_decode A true dd dec false = SOk (dbl, false) /\ chk dbl)).
Proof.
  unfold end_sublabel. destruct (starts_with x XN_PREFIX) eqn:Es.
  2:{ intros H. destruct (check_label_true A cfg _ _ _ _ _ _ _ H) as [-> ->]. split; [reflexivity|]. left. repeat split. exact H. }
  destruct (xn_shape x Es) as (r & ->). intros H. cbv zeta in H. cbn [skipn firstn app] in H.
  apply sbind_ok in H. destruct H as ([t h1] & H1 & H).
  apply scan_true in H1. destruct H1 as (-> & -> & Hna). rewrite Hna in H.
  destruct (last_opt (120 :: 110 :: 45 :: 45 :: r)) as [lst|] eqn:El; [|discriminate].
  apply sbind_ok in H. destruct H as ([[c2 h2] p2] & H2 & H).
  destruct (lst =? HYPHEN) eqn:Eh; [discriminate|]. inversion H2. subst c2 h2 p2. clear H2.
  apply sbind_ok in H. destruct H as ([[c3 h3] p3] & H3 & H).
  destruct (PUNYCODE_DECODE_MAX_INPUT_LENGTH <? len (120 :: 110 :: 45 :: 45 :: r) - 4); [discriminate|]. inversion H3. subst c3 h3 p3. clear H3.
  cbn [negb skipn] in H.
  destruct (decode_with cfg CharInternal r) as [decoded| |s] eqn:Ed; try discriminate.
  apply sbind_ok in H. destruct H as ([c4 h4] & H4 & H).
  destruct (apd_inv _ _ _ H4) as (-> & _).
  destruct (check_label_true A cfg _ _ _ _ _ _ _ H) as [-> ->]. split; [reflexivity|]. right.
  assert (Hr : r <> []).
  { intros ->. cbn [last_opt] in El. inversion El. subst lst. discriminate. }
  exists r, decoded. repeat split; try assumption.
  intros Hl. destruct r as [|r0 r']; [contradiction Hr; reflexivity|].
  change (last_opt (120 :: 110 :: 45 :: 45 :: r0 :: r')) with (last_opt (r0 :: r')) in El. rewrite Hl in El. inversion El. subst lst. discriminate.
Qed.

Lemma noupper_prefix x : Forall (fun b => b < 128) x -> existsb is_upper x = false -> has_punycode_prefix x = true ->
  starts_with x XN_PREFIX = true.
Proof.
  intros Ha Hu Hp. destruct (xn_prefix_spec x Ha Hp) as (a & b & r & -> & Xa & Xb).
  cbn [existsb] in Hu. apply orb_false_iff in Hu. destruct Hu as [Hua Hu]. apply orb_false_iff in Hu. destruct Hu as [Hub _].
  destruct Xa as [-> | ->]; [|discriminate]. destruct Xb as [-> | ->]; [|discriminate]. destruct r; reflexivity.
Qed.

Lemma es_pair x f dbl : end_sublabel A cfg true hy dd x false f true = SOk (dbl, false) ->
  normalize_validate A x = x -> Forall (gc dd) x -> usv_list x ->
  (f = false -> match x with [] => True | c :: _ => c < 128 end) -> PairOK dbl AalOther.
Proof.
  intros H Hn Hg Hu Hf. destruct (es_inv _ _ _ _ H) as (_ & [(Hs & -> & Hc)|(r & dec & -> & Hr & Hl & Hd & Ha & Hc)]).
  - apply pk_other; try assumption.
    + unfold chk. destruct f; [exact Hc|]. exact (chk_fcm x _ Hc (Hf eq_refl)).
    + intros Hasc. destruct (has_punycode_prefix x) eqn:Ep; [|reflexivity].
      rewrite (noupper_prefix x (is_ascii_l_spec x Hasc) (gc_all_noupper deny DOT_MASK x HU Hg) Ep) in Hs. discriminate.
  - destruct (apd_inv _ _ _ Ha) as (_ & Hdbl & Hgd & Hz).
    assert (Hna : is_ascii_l dbl = false).
    { apply (apd_nonascii dec dbl Hdbl Hz). apply (decode_nonascii cfg CharInternal r dec Hd Hr). exact Hl. }
    apply pk_other; try assumption.
    + rewrite Hdbl. apply HNI. rewrite <- Hdbl. exact (proj2 (gc_map dd dbl Hgd)).
    + rewrite Hdbl. apply (usv_norm A HUSV).
    + rewrite Hna. discriminate.
Qed.

Definition ES (f : bool) (x dbl : list N) : Prop :=
  end_sublabel A cfg true hy dd x false f true = SOk (dbl, false) /\ fffd x = false.

Lemma sublabels_inv rest : forall s db cur ap fcm db' he' ap',
  sublabels A cfg true hy dd s rest db cur false ap fcm true = SOk (db', he', ap') ->
  he' = false /\ exists dbl0 dbls, end_sublabel A cfg true hy dd (cur ++ s) false fcm true = SOk (dbl0, false) /\ fffd s = false /\
    Forall2 (ES true) rest dbls /\ db' = db ++ join_dots (dbl0 :: dbls) /\ ap' = ap ++ repeat AalOther (length rest).
Proof.
  induction rest as [|s2 rest IH]; intros s db cur ap fcm db' he' ap' H; cbn [sublabels] in H.
  - apply sbind_ok in H. destruct H as ([s1 h1] & H1 & H). apply scan_true in H1. destruct H1 as (-> & -> & Hf).
    apply sbind_ok in H. destruct H as ([lab h2] & H2 & H).
    destruct (es_inv _ _ _ _ H2) as [-> _]. inversion H. subst. split; [reflexivity|].
    exists lab, []. repeat split; try assumption; [constructor|cbn [repeat length]; rewrite app_nil_r; reflexivity].
  - apply sbind_ok in H. destruct H as ([s1 h1] & H1 & H). apply scan_true in H1. destruct H1 as (-> & -> & Hf).
    apply sbind_ok in H. destruct H as ([lab h2] & H2 & H).
    destruct (es_inv _ _ _ _ H2) as [-> _].
    destruct (IH _ _ _ _ _ _ _ _ H) as (-> & dbl0 & dbls & H0 & Hf0 & HF & -> & ->). split; [reflexivity|].
    exists lab, (dbl0 :: dbls). repeat split; try assumption.
    + constructor; [split; [exact H0|exact Hf0]|exact HF].
    + rewrite join_dots_cons2, <- !app_assoc. reflexivity.
    + cbn [length repeat]. rewrite <- app_assoc. reflexivity.
Qed.

(* complexF: a label with non-ASCII input *)
Lemma pieces_gc M s rest : Forall (gc deny) M -> split1 DOT M = (s, rest) -> Forall (gc dd) s /\ Forall (Forall (gc dd)) rest.
Proof.
  intros Hg Hs. destruct (split1_Forall _ _ _ _ _ Hg Hs) as [H1 H2]. destruct (split1_nodot _ _ _ Hs) as [N1 N2].
  assert (G : forall l, Forall (gc deny) l -> nodot l -> Forall (gc dd) l).
  { intros l Hl Hn. apply Forall_forall. intros c Hc. unfold nodot in Hn. rewrite Forall_forall in Hl, Hn.
    apply gc_lift; [exact (Hl c Hc)|exact (Hn c Hc)]. }
  split; [exact (G s H1 N1)|]. apply Forall_forall. intros l Hl. rewrite Forall_forall in H2, N2. exact (G l (H2 l Hl) (N2 l Hl)).
Qed.

Lemma cmap_gc ascii : Forall (fun b => b < 128) ascii -> nodot ascii -> existsb is_fffd (cmap deny ascii) = false ->
  cmap deny ascii = map to_lower ascii /\ Forall (gc dd) (map to_lower ascii).
Proof.
  intros Ha Hn Hf. pose proof (cmap_lower deny HU ascii Ha Hf) as Hc. split; [exact Hc|].
  pose proof (lowclean_upper deny HU HL ascii Ha Hf) as Hlc. unfold lowclean in Hlc.
  pose proof (lower_nodot ascii Hn) as Hn2. unfold nodot in Hn2.
  apply Forall_forall. intros c Hin. apply in_map_iff in Hin. destruct Hin as (b & <- & Hb).
  rewrite Forall_forall in Hlc, Hn2. destruct (Hlc b Hb) as [Hlt Hm].
  apply gc_lift; [|exact (Hn2 _ (in_map _ _ _ Hb))].
  unfold gc, apply_lower. replace (to_lower b <? 128) with true by lia.
  unfold deny_member in Hm. apply negb_false_iff in Hm. rewrite Hm. intros E.
  rewrite E in Hlt. unfold FFFD, REPLACEMENT in Hlt. lia.
Qed.

Lemma complexF_pairs db ap ascii non_ascii db' he' ap' : Forall (fun b => b < 128) ascii -> nodot ascii -> non_ascii <> [] ->
  (ascii <> [] -> exists c r, non_ascii = c :: r /\ c < 128) ->
  complexF A cfg true hy deny db false ap ascii non_ascii = SOk (db', he', ap') ->
  he' = false /\ exists dbls, dbls <> [] /\ db' = db ++ join_dots dbls /\ ap' = ap ++ repeat AalOther (length dbls) /\
    Forall (fun dbl => PairOK dbl AalOther) dbls.
Proof.
  intros Ha Hnd Hne Hhead H. unfold complexF in H.
  apply sbind_ok in H. destruct H as ([c1 h1] & H1 & H). apply scan_true in H1. destruct H1 as (-> & -> & Hf).
  fold (cmap deny ascii) in H, Hf. destruct (cmap_gc ascii Ha Hnd Hf) as [Hcm Hga]. rewrite Hcm in H.
  set (L := utf8_lossy non_ascii) in *.
  destruct (split1 DOT (map (apply_lower deny) (map_normalize A L))) as [s rest] eqn:Es.
  replace (match non_ascii with [] => false | _ :: _ => true end) with true in H by (destruct non_ascii; [contradiction Hne; reflexivity|reflexivity]).
  fold dd in H. destruct (sublabels_inv _ _ _ _ _ _ _ _ _ H) as (-> & dbl0 & dbls & H0 & Hfs & HF & -> & ->).
  split; [reflexivity|].
  (* the mapped stream has no U+FFFD: it is map_normalize of the text *)
  assert (Hmf0 : existsb is_fffd (map (apply_lower deny) (map_normalize A L)) = false).
  { rewrite (split1_join _ _ _ Es). fold (fffd (join_dots (s :: rest))). rewrite fffd_join. cbn [efffd existsb]. rewrite Hfs. cbn [orb].
    clear -HF. induction HF as [|x y xs ys [_ Hx] _ IH]; [reflexivity|]. cbn [existsb]. rewrite Hx. exact IH. }
  pose proof (gc_of_scan deny _ Hmf0) as HgM. pose proof (map_apply_lower_id deny _ Hmf0) as Hid. rewrite Hid in Es.
  assert (Hmf : existsb is_fffd (map_normalize A L) = false) by (rewrite <- Hid; exact Hmf0).
  destruct (pieces_gc _ _ _ HgM Es) as [Hgs Hgr].
  pose proof (usv_map A HUSV L) as HuM. destruct (split1_Forall _ _ _ _ _ HuM Es) as [Hus Hur].
  (* every piece is a piece of an error-free map_normalize output *)
  assert (Hst : forall piece, In piece ((map to_lower ascii ++ s) :: rest) -> normalize_validate A piece = piece).
  { destruct ascii as [|a0 ar].
    - cbn [map app]. intros piece Hin. apply (ok_stable A HOK L Hmf). unfold split_on. rewrite Es. exact Hin.
    - destruct (Hhead ltac:(discriminate)) as (c & r & Hna & Hc).
      assert (HL1 : L = c :: utf8_lossy r) by (unfold L; rewrite Hna; apply utf8_lossy_ascii_head; exact Hc).
      assert (Hmp : map_normalize A ((a0 :: ar) ++ L) = map to_lower (a0 :: ar) ++ map_normalize A L).
      { rewrite HL1. apply HMP; [|exact Hc]. apply is_ascii_l_intro. exact Ha. }
      intros piece Hin. apply (ok_stable A HOK ((a0 :: ar) ++ L)).
      + rewrite Hmp. fold (fffd (map to_lower (a0 :: ar) ++ map_normalize A L)). rewrite fffd_app.
        rewrite (proj2 (gc_map dd _ Hga)). exact Hmf.
      + rewrite Hmp. unfold split_on. rewrite (split1_app_nodot _ _ (lower_nodot _ Hnd)), Es. exact Hin. }
  assert (Hua : usv_list (map to_lower ascii)).
  { unfold usv_list. apply Forall_forall. intros x Hx. apply in_map_iff in Hx. destruct Hx as (b & <- & Hb).
    rewrite Forall_forall in Ha. specialize (Ha b Hb). unfold is_usv, to_lower, is_upper. destruct ((65 <=? b) && (b <=? 90)) eqn:E0; lia. }
  exists (dbl0 :: dbls). split; [discriminate|]. split; [reflexivity|]. split.
  { rewrite <- app_assoc. cbn [length repeat app]. rewrite (Forall2_len _ _ _ HF). reflexivity. }
  constructor.
  - apply (es_pair _ _ _ H0).
    + apply Hst. left; reflexivity.
    + apply Forall_app. split; assumption.
    + unfold usv_list. apply Forall_app. split; assumption.
    + destruct ascii as [|a0 ar]; [discriminate|]. intros _. cbn [map app].
      inversion Ha as [|? ? Ha0 _]; subst. unfold to_lower, is_upper. destruct ((65 <=? a0) && (a0 <=? 90)) eqn:E0; lia.
  - clear H0 H. revert Hst Hgr Hur. clear -HF HU HL HOK HUSV HNT HNI HNM. intros Hst Hgr Hur.
    induction HF as [|x y xs ys [Hx _] _ IH]; [constructor|].
    inversion Hgr as [|? ? Hg1 Hg2]; subst. inversion Hur as [|? ? Hu1 Hu2]; subst. constructor.
    + apply (es_pair _ _ _ Hx); [apply Hst; right; left; reflexivity|exact Hg1|exact Hu1|discriminate].
    + apply IH; [|exact Hg2|exact Hu2]. intros piece [Hp|Hp]; apply Hst; [left; exact Hp|right; right; exact Hp].
Qed.

Lemma puny_rest m : Forall (fun b => b < 128) m -> has_punycode_prefix m = true -> puny_cond m = true ->
  skipn 4 m <> [] /\ last_opt (skipn 4 m) <> Some DELIMITER.
Proof.
  intros Ha Hp Hc. destruct (xn_prefix_spec m Ha Hp) as (a & b & r & -> & _ & _). cbn [skipn].
  unfold puny_cond in Hc. apply andb_true_iff in Hc. destruct Hc as [Hc _]. apply negb_true_iff in Hc.
  destruct r as [|r0 r'].
  - cbn [last_opt] in Hc. discriminate.
  - split; [discriminate|]. change (last_opt (a :: b :: 45 :: 45 :: r0 :: r')) with (last_opt (r0 :: r')) in Hc.
    intros E. rewrite E in Hc. discriminate.
Qed.

Lemma label_nonempty_pairs label db ap db' he' ap' : label <> [] -> bytes label -> nodot label ->
  label_nonempty A cfg true hy deny label db false ap = SOk (db', he', ap') ->
  he' = false /\ exists dbls es, dbls <> [] /\ db' = db ++ join_dots dbls /\ ap' = ap ++ es /\ Forall2 PairOK dbls es.
Proof.
  intros Hne Hb Hnd H. pose proof H as H'. rewrite label_nonempty_eq in H.
  destruct (split_ascii_fast_path_prefix label) as [ascii non_ascii] eqn:Es.
  pose proof (split_ascii_app _ _ _ Es) as Hlab. pose proof (split_ascii_prefix _ _ _ Es) as Ha.
  assert (Hna : nodot ascii) by (rewrite Hlab in Hnd; apply nodot_app in Hnd; exact (proj1 Hnd)).
  assert (HF : forall H0 : complexF A cfg true hy deny db false ap ascii non_ascii = SOk (db', he', ap'), non_ascii <> [] ->
            he' = false /\ exists dbls es, dbls <> [] /\ db' = db ++ join_dots dbls /\ ap' = ap ++ es /\ Forall2 PairOK dbls es).
  { intros H0 Hn0. destruct (complexF_pairs _ _ _ _ _ _ _ Ha Hna Hn0 (fun Ha0 => split_ascii_head _ _ _ Es Ha0 Hn0) H0) as (-> & dbls & Hd0 & -> & -> & HP).
    split; [reflexivity|]. exists dbls, (repeat AalOther (length dbls)). repeat split; try assumption. exact (Forall2_repeat _ _ _ HP). }
  destruct non_ascii as [|na nr]; [|exact (HF H ltac:(discriminate))].
  rewrite app_nil_r in Hlab. subst ascii.
  destruct (has_punycode_prefix label) eqn:Ep.
  - fold (puny_cond label) in H. destruct (puny_cond label) eqn:Ec; [|discriminate].
    destruct (decode_with cfg U8Internal (skipn 4 label)) as [decoded| |s] eqn:Ed; try discriminate.
    apply sbind_ok in H. destruct H as ([c1 h1] & H1 & H).
    apply sbind_ok in H. destruct H as ([c2 h2] & H2 & H). fold dd in H1.
    destruct (apd_inv _ _ _ H1) as (-> & Hdbl & Hg & Hz).
    destruct (check_label_true A cfg _ _ _ _ _ _ _ H2) as [-> ->]. inversion H. subst db' he' ap'.
    split; [reflexivity|]. exists [c1], [MixedCasePunycode label]. split; [discriminate|]. repeat split.
    constructor; [|constructor].
    destruct (puny_rest label Ha Ep Ec) as [Hr1 Hr2].
    apply (pk_puny label decoded c1); try assumption.
    exact (apd_nonascii decoded c1 Hdbl Hz (decode_nonascii cfg U8Internal _ _ Ed Hr1 Hr2)).
  - assert (Han : an_label label) by (split; assumption).
    rewrite (label_nonempty_an A cfg hy deny label db ap Han) in H'.
    destruct (lab_acc deny hy label) eqn:Eacc; [|discriminate]. inversion H'. subst db' he' ap'.
    split; [reflexivity|]. exists [cmap deny label], [MixedCaseAscii label]. split; [discriminate|]. repeat split.
    constructor; [|constructor]. apply pk_ascii; assumption.
Qed.
End Drun.
