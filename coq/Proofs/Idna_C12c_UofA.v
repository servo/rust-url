(* Proofs/Idna_C12c_UofA.v - C12, clause u_of_a in full: for every accepted name d whose ASCII form a is outside
   Known_C10_long, ToUnicode of a is ToUnicode of d (same text, no error).  Premises: the six sampled adapter facts of
   C10_idem3; no exclusion of Known_C12 / Known_C11.
   The label step of the run on a turns the text written for a pair (buffer label, entry) back into the same buffer
   label, with the entry e2_of (pair_rt2 = pair_rt_entry of Proofs/Idna_C10c_Idem.v); the Unicode text written for the
   new entry is the one written for the old (out_e2).  The runs are
   compared through the virtual run (Proofs/Idna_C12c_Virtual.v). *)
From RU Require Import Base.Prelude Base.Utf8 Base.U32_c13 Gen.Tables Model.Punycode Model.Uts46
  Proofs.C13_Ascii Proofs.Idna_Sim Proofs.Idna_Api Proofs.Idna_Known Proofs.Idna_Hyp Proofs.Idna_Redisc
  Proofs.Idna_C10_Deny Proofs.Idna_C10_Puny Proofs.Idna_C10_Prefix Proofs.Idna_C10_Inner Proofs.Idna_C10_Walk
  Proofs.Idna_C10b_Long Proofs.Idna_C10b_AsciiInner Proofs.Idna_C10b_AsciiWalk Proofs.Idna_C10b_Stmt
  Proofs.Idna_WalkFun Proofs.Idna_WalkInv Proofs.Idna_WalkApi Proofs.Idna_WalkEnc Proofs.Idna_PunyRT
  Proofs.Idna_C10c_Puny Proofs.Idna_C10c_Start Proofs.Idna_C10c_Drun Proofs.Idna_C10c_Loop Proofs.Idna_C10c_Rerun
  Proofs.Idna_C10c_Idem Proofs.Idna_C10c_Example Proofs.Idna_Mark Proofs.Idna_C12 Proofs.Idna_C12b_Stmt3
  Proofs.Idna_C10d_CaseLabel Proofs.Idna_C10d_CaseLoop Proofs.Idna_C10d_Case Proofs.Idna_C12c_Virtual.

(* the entry the second run records for the text written for (dbl, e) *)
Definition e2_of (dbl : list N) (e : aal) (o : list N) : aal :=
  match e with
  | MixedCaseAscii m => MixedCaseAscii (map to_lower m)
  | MixedCasePunycode m => MixedCasePunycode (map to_lower m)
  | AalOther => if is_ascii_l dbl then MixedCaseAscii dbl else MixedCasePunycode o
  end.

Lemma ptake_app_pass pl x : Forall (fun l => is_passthrough_ascii_label l = true) pl -> ptake (pl ++ x) = pl ++ ptake x.
Proof. induction 1 as [|l r Hl _ IH]; [reflexivity|]. cbn [app ptake]. rewrite Hl, IH. reflexivity. Qed.

Section UofA.
Variable A : adapter.
Variable cfg : bool.
Variable deny : N.
Variable hy : hyphens.
Hypothesis HU : DenyUpper deny.
Hypothesis HL : LdhFree deny.
Hypothesis HOK : AdapterOK A.
Hypothesis HUSV : AdapterUSV A.
Hypothesis HNT : NvNoTrunc A.
Hypothesis HNI : NvIdem A.
Hypothesis HNM : AsciiNoMark A.
Hypothesis HMP : MapPrefix A.

Notation PairOK := (PairOK A cfg deny hy).
Notation RT := (RT A cfg deny hy).

Lemma pair_rt2 dbl e o : PairOK dbl e -> out_label cfg is_ascii_l dbl e = inl o -> long_puny_label o = false ->
  RT o dbl (e2_of dbl e o).
Proof. exact (pair_rt_entry A cfg deny hy HU HL dbl e o). Qed.
(* the Unicode text written for the new entry *)
Lemma out_e2 dbl e o : PairOK dbl e -> out_label cfg is_ascii_l dbl e = inl o ->
  out_label cfg uT dbl (e2_of dbl e o) = out_label cfg uT dbl e.
Proof.
  intros HP Ho. destruct HP as [m Han Hn Hacc|m dec dbl Ha Hn Hp Hc Hd Hapd Hchk Hna|dbl Hnv Hg Hchk Hu Hpre]; cbn [e2_of out_label uT].
  - rewrite lower_lower. reflexivity.
  - reflexivity.
  - destruct (is_ascii_l dbl) eqn:Easc; cbn [out_label uT]; [|reflexivity].
    pose proof (is_ascii_l_spec dbl Easc) as Ha.
    assert (Hcl : Forall (clean deny) dbl).
    { apply Forall_forall. intros c Hin. rewrite Forall_forall in Ha, Hg. exact (gc_clean deny DOT_MASK c (Ha c Hin) (Hg c Hin)). }
    f_equal. apply lower_noupper. eapply Forall_impl; [|exact Hcl]. intros c Hc. exact (proj1 (proj2 (clean_final deny c HU Hc))).
Qed.

(* all the pairs: the triples of the second run, with explicit entries *)
Fixpoint mkT (DBL : list (list N)) (ap : list aal) (os : list (list N)) : list triple :=
  match DBL, ap, os with
  | dbl :: DBL', e :: ap', o :: os' => (o, dbl, e2_of dbl e o) :: mkT DBL' ap' os'
  | _, _, _ => []
  end.

Lemma build_T2 DBL : forall ap os, Forall2 PairOK DBL ap -> outs cfg is_ascii_l DBL ap = inl os ->
  Forall (fun o => long_puny_label o = false) os ->
  map t_o (mkT DBL ap os) = os /\ map t_d (mkT DBL ap os) = DBL /\ Forall (RT3 A cfg deny hy) (mkT DBL ap os) /\
  outs cfg uT DBL (map t_e (mkT DBL ap os)) = outs cfg uT DBL ap.
Proof.
  induction DBL as [|dbl DBL IH]; intros ap os HP Ho Hl.
  - inversion HP; subst. cbn [outs] in Ho. inversion Ho. repeat split. constructor.
  - inversion HP as [|? e ? ap' H1 H2]; subst. cbn [outs] in Ho.
    destruct (out_label cfg is_ascii_l dbl e) as [o|s] eqn:E1; [|discriminate].
    destruct (outs cfg is_ascii_l DBL ap') as [os'|s] eqn:E2; [|discriminate]. inversion Ho. subst os.
    inversion Hl as [|? ? Hl1 Hl2]; subst.
    destruct (IH _ _ H2 E2 Hl2) as (T1 & T2 & T3 & T4). cbn [mkT map t_o t_d t_e fst snd]. rewrite T1, T2.
    split; [reflexivity|]. split; [reflexivity|]. split; [constructor; [exact (pair_rt2 _ _ _ H1 E1 Hl1)|exact T3]|].
    cbn [outs]. rewrite T4, (out_e2 _ _ _ H1 E1). reflexivity.
Qed.

Lemma pres_of_rt o dbl e : RT o dbl e -> pres A cfg deny hy o = SOk (dbl, false, [e]).
Proof.
  intros (_ & _ & Hrun & _). destruct o as [|b r]; [destruct Hrun as [-> ->]; reflexivity|]. cbn [pres]. exact (Hrun [] []).
Qed.
Lemma proc_all_rt T : Forall (RT3 A cfg deny hy) T ->
  proc_all A cfg deny hy (map t_o T) = SOk (map t_d T, map (fun t => [t_e t]) T).
Proof.
  induction 1 as [|t r Ht _ IH]; [reflexivity|]. cbn [map proc_all]. rewrite (pres_of_rt _ _ _ Ht), IH. reflexivity.
Qed.
Lemma concat_singles (T : list triple) : concat (map (fun t => [t_e t]) T) = map t_e T.
Proof. induction T as [|t r IH]; [reflexivity|]. cbn [map concat app]. rewrite IH. reflexivity. Qed.
End UofA.

Section UofA2.
Variable A : adapter.
Variable cfg : bool.
Variable deny : N.
Variable hy : hyphens.
Hypothesis HU : DenyUpper deny.
Hypothesis HL : LdhFree deny.
Hypothesis HOK : AdapterOK A.
Hypothesis HUSV : AdapterUSV A.
Hypothesis HNT : NvNoTrunc A.
Hypothesis HNI : NvIdem A.
Hypothesis HNM : AsciiNoMark A.
Hypothesis HMP : MapPrefix A.
Notation PairOK := (PairOK A cfg deny hy).

(* an accepted run: the whole name passed through, or pass-through labels followed by pairs for which ToASCII
   writes the rest of the result *)
Lemma accepted_run d b a : bytes d -> to_ascii A cfg d deny hy DIgnore = Ok (b, a) ->
  (a = d /\ ascii d /\ forall p, to_user_interface A cfg d deny hy p = UI true d false) \/
  exists pl l rest DBL ap bd os, process_inner A cfg true hy deny d = IRes (len (ptext pl)) bd false (join_dots DBL) ap /\
    d = ptext pl ++ join_dots (l :: rest) /\ len (ptext pl) < len d /\
    Forall PassL pl /\ DBL <> [] /\ Forall2 PairOK DBL ap /\
    is_bidi A cfg (join_dots DBL) = Ok bd /\ (bd = true -> Forall (BOKl A) DBL) /\
    outs cfg is_ascii_l DBL ap = inl os /\ os <> [] /\ a = join_dots (pl ++ os).
Proof.
  intros Hb H. pose proof (redisc_of_adapter A cfg deny (ok_nil A HOK) HU) as HR.
  destruct (process_inner A cfg true hy deny d) as [ptu bd he db ap|s] eqn:Ei.
  2:{ unfold to_ascii, process in H. rewrite Ei in H. discriminate. }
  destruct (inner_facts A cfg true hy deny d _ _ _ _ _ Hb Ei) as [(_ & -> & -> & Hne)|[(-> & -> & Had)|[HB Hm]]].
  - exfalso. unfold to_ascii, process in H. rewrite Ei in H.
    destruct (0 =? len d) eqn:E; [apply len_nil_iff in E; contradiction|]. cbn [andb] in H. discriminate.
  - left. unfold to_ascii, process in H. rewrite Ei, N.eqb_refl, andb_false_r in H. cbn [dns_is_ignore negb] in H. inversion H. subst a.
    split; [reflexivity|]. split; [exact Had|]. intros p.
    destruct (inner_ff_facts A cfg hy deny d _ _ _ _ _ Ei) as [HX|[_ Hm]]; [inversion HX|].
    unfold to_user_interface, process. rewrite Hm, N.eqb_refl, andb_false_r. reflexivity.
  - right. assert (Hlt : ptu <> len d) by (destruct HB as [Hx _]; lia).
    destruct he.
    { exfalso. unfold to_ascii, process in H. rewrite Ei in H.
      replace (ptu =? len d) with false in H by (symmetry; apply N.eqb_neq; exact Hlt). cbn [andb] in H. discriminate. }
    destruct (drun A cfg deny hy HU HL HOK HUSV HNT HNI HNM HMP d ptu bd db ap Hb Ei Hlt)
      as (pl & done & DBL & Hpl & Hdn & Hd2 & Hptu & HD & Hdb & HPK & Hbidi & Hbok).
    pose proof (pairok_all_nodot A cfg deny hy _ _ HPK) as HDn.
    destruct done as [|l rest]; [contradiction Hdn; reflexivity|].
    assert (Hlt2 : len (ptext pl) < len d) by (destruct HB as [Hx _]; lia).
    subst ptu.
    destruct (to_ascii_text A cfg deny hy HR d pl l rest bd _ _ Hb Hd2 Hlt2 Ei) as [Hlen HT].
    rewrite Hdb, (Idna_Mark.split_join DBL HD HDn) in HT, Hlen.
    destruct (outs cfg is_ascii_l DBL ap) as [os|s] eqn:Eo; [|rewrite HT in H; discriminate].
    destruct HT as (b0 & HT). rewrite HT in H. inversion H. subst b0 a.
    assert (Hos : os <> []).
    { pose proof (outs_len cfg is_ascii_l _ _ _ Eo Hlen) as Hx. intros ->. destruct DBL; [contradiction HD; reflexivity|discriminate]. }
    exists pl, l, rest, DBL, ap, bd, os. rewrite (ptext_join pl os Hos), <- Hdb.
    repeat split; try assumption.
Qed.

(* the accepted run, both texts *)
Lemma first_run d b a : bytes d -> to_ascii A cfg d deny hy DIgnore = Ok (b, a) ->
  (a = d /\ ascii d /\ to_unicode A cfg d deny hy = UI true d false) \/
  exists pl DBL ap bd os ou bu, process_inner A cfg true hy deny d = IRes (len (ptext pl)) bd false (join_dots DBL) ap /\
    Forall PassL pl /\ DBL <> [] /\ Forall2 PairOK DBL ap /\
    is_bidi A cfg (join_dots DBL) = Ok bd /\ (bd = true -> Forall (BOKl A) DBL) /\
    outs cfg is_ascii_l DBL ap = inl os /\ os <> [] /\ a = join_dots (pl ++ os) /\
    outs cfg uT DBL ap = inl ou /\ ou <> [] /\ to_unicode A cfg d deny hy = UI bu (join_dots (pl ++ ou)) false.
Proof.
  intros Hb H.
  destruct (accepted_run d b a Hb H)
    as [(-> & Had & HTd)|(pl & l & rest & DBL & ap & bd & os & Ei & Hd2 & Hlt2 & Hpl & HD & HPK & Hbidi & Hbok & Eo & Hos & Ha)].
  - left. split; [reflexivity|]. split; [exact Had|exact (HTd always_unicode)].
  - right. pose proof (pairok_all_nodot A cfg deny hy _ _ HPK) as HDn.
    destruct (to_unicode_text A cfg deny hy d pl l rest bd _ _ Hb Hd2 Hlt2 Ei) as (_ & bu & ou & Eu & HTu).
    rewrite (Idna_Mark.split_join DBL HD HDn) in Eu.
    assert (Hou : ou <> []).
    { pose proof (outs_len cfg uT _ _ _ Eu (Forall2_len _ _ _ HPK)) as Hx. intros ->. destruct DBL; [contradiction HD; reflexivity|discriminate]. }
    rewrite <- (ptext_join pl ou Hou) in HTu. exists pl, DBL, ap, bd, os, ou, bu. repeat split; assumption.
Qed.

Theorem u_of_a_text d b a : bytes d -> to_ascii A cfg d deny hy DIgnore = Ok (b, a) -> Known_C10_long a = false ->
  exists bu bu' u, to_unicode A cfg d deny hy = UI bu u false /\ to_unicode A cfg a deny hy = UI bu' u false.
Proof.
  intros Hb H Hlong. pose proof (redisc_of_adapter A cfg deny (ok_nil A HOK) HU) as HR.
  destruct (first_run d b a Hb H) as [(-> & _ & HTd)|(pl & DBL & ap & bd & os & ou & bu & _ & Hpl & HD & HPK & Hbidi & Hbok & Eo & Hos & Ha & Eu & Hou & HTu)].
  - (* the whole name was passed through: a = d *)
    exists true, true, d. split; exact HTd.
  - (* the walking branch *)
    pose proof (pairok_all_nodot A cfg deny hy _ _ HPK) as HDn.
    destruct (outs_nodot A cfg deny hy HU HL DBL ap os HPK Eo) as [Hosn Hosl].
    assert (Hsplit : split_on DOT a = pl ++ os).
    { rewrite Ha. apply Idna_Mark.split_join; [destruct pl; [exact Hos|discriminate]|].
      apply Forall_app. split; [|exact Hosn]. eapply Forall_impl; [|exact Hpl]. intros l. apply pass_nodot. }
    assert (Hlo : Forall (fun o => long_puny_label o = false) os).
    { unfold Known_C10_long in Hlong. rewrite Hsplit, existsb_app in Hlong. apply orb_false_iff in Hlong. destruct Hlong as [_ Hl2].
      apply Forall_forall. intros o Hin. destruct (long_puny_label o) eqn:E; [|reflexivity]. exfalso.
      assert (Hx : existsb long_puny_label os = true) by (apply existsb_exists; exists o; split; assumption).
      rewrite Hx in Hl2. discriminate. }
    destruct (build_T2 A cfg deny hy HU HL DBL ap os HPK Eo Hlo) as (T1 & T2 & T3 & T4).
    set (T := mkT DBL ap os) in *.
    assert (Hba : bytes a).
    { pose proof (to_ascii_clean A cfg d deny hy DIgnore b a HNT Hb HU HL H) as Hc.
      unfold bytes. eapply Forall_impl; [|exact Hc]. intros c [Hc1 _]. unfold is_byte. lia. }
    assert (Hp : proc_all A cfg deny hy (split_on DOT a) =
                 SOk (pl ++ DBL, map (fun l => [MixedCaseAscii l]) pl ++ map (fun t => [t_e t]) T)).
    { rewrite Hsplit, proc_all_app, (proc_all_pass A cfg deny hy HL _ Hpl), <- T1, (proc_all_rt A cfg deny hy T T3), T2. reflexivity. }
    assert (HV : VBk A cfg (length pl) bd (pl ++ DBL)).
    { split.
      - rewrite concat_app, is_bidi_app, (is_bidi_ascii A cfg _ (pass_all_ascii _ Hpl)), <- is_bidi_join. exact Hbidi.
      - intros Hb1. rewrite (skipn_app_le (length pl) pl DBL (le_n _)), skipn_all. cbn [app]. rewrite (VL_nodot _ HDn). exact (Hbok Hb1). }
    assert (Hk : (length pl <= length (ptake (split_on DOT a)))%nat).
    { rewrite Hsplit, ptake_app_pass, app_length; [lia|]. eapply Forall_impl; [|exact Hpl]. intros l Hl. exact (proj2 Hl). }
    destruct (virtual_unicode A cfg deny hy HU HL HR a _ _ _ bd Hba Hp HV Hk) as (bu' & ov & Eov & HTa).
    rewrite VL_app, (VL_nodot _ (pass_all_nodot _ Hpl)), (VL_nodot _ HDn), concat_app, concat_mca, concat_singles in Eov.
    rewrite (outs_mca cfg uT _ _ pl pl eq_refl), T4, Eu, (pass_all_lower deny HU HL _ Hpl) in Eov. inversion Eov. subst ov.
    exists bu, bu', (join_dots (pl ++ ou)). split; assumption.
Qed.
End UofA2.

Theorem c12_u_of_a A cfg : AdapterOK A -> AdapterUSV A -> NvNoTrunc A -> NvIdem A -> AsciiNoMark A -> MapPrefix A ->
  forall d deny hy b a, bytes d -> valid_deny deny ->
  to_ascii A cfg d deny hy DIgnore = Ok (b, a) -> Known_C10_long a = false ->
  ui_text (to_unicode A cfg a deny hy) = ui_text (to_unicode A cfg d deny hy) /\
  ui_err (to_unicode A cfg a deny hy) = false /\ ui_err (to_unicode A cfg d deny hy) = false /\
  ui_panics (to_unicode A cfg a deny hy) = false /\ ui_panics (to_unicode A cfg d deny hy) = false.
Proof.
  intros HOK HUSV HNT HNI HNM HMP d deny hy b a Hb Hv H Hlong. destruct (valid_deny_facts deny Hv) as [HU HL].
  destruct (u_of_a_text A cfg deny hy HU HL HOK HUSV HNT HNI HNM HMP d b a Hb H Hlong) as (bu & bu' & u & E1 & E2).
  rewrite E1, E2. repeat split.
Qed.

(* "A.B<u-umlaut>cher": both ToUnicode results are "a.b<u-umlaut>cher" *)
Example c12_u_of_a_example :
  to_ascii lowsan true W_idem3 DENY_URL HCheck DIgnore = Ok (false, W_idem3_A) /\ Known_C10_long W_idem3_A = false /\
  to_unicode lowsan true W_idem3 DENY_URL HCheck = UI false [97; 46; 98; 252; 99; 104; 101; 114] false /\
  to_unicode lowsan true W_idem3_A DENY_URL HCheck = UI false [97; 46; 98; 252; 99; 104; 101; 114] false.
Proof. vm_compute. repeat split; reflexivity. Qed.
