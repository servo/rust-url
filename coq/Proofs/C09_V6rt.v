(* Proofs/C09_V6rt.v - parse_ipv6addr (write_ipv6 a) = a for all eight-piece addresses. *)
From RU Require Import Base.Prelude Model.Host Proofs.C09_V6.

(* ------------------------------------------------------------------ what the round trip needs of longest_zero_sequence *)

Definition zrun (z : list N) (i j : nat) : bool :=
  forallb (fun k => nth k z 1 =? 0) (seq i (j - i)).

Definition lzs_shape_b (z : list N) : bool :=
  let '(cs, ce) := longest_zero_sequence z in
  if (cs =? -1)%Z then (ce =? -2)%Z
  else (0 <=? cs)%Z && (cs + 2 <=? ce)%Z && (ce <=? 8)%Z && zrun z (Z.to_nat cs) (Z.to_nat ce).

Lemma lzs_shape_sweep : all_below 256 (fun k => lzs_shape_b (pat k)) = true.
Proof. vm_compute. reflexivity. Qed.

Lemma zrun_nz z i j : zrun (map nz z) i j = zrun z i j.
Proof.
  unfold zrun. induction (seq i (j - i)) as [|k l IH]; [reflexivity|]. cbn [forallb]. rewrite IH. f_equal.
  change 1 with (nz 1) at 1. rewrite map_nth. unfold nz. destruct (nth k z 1 =? 0) eqn:E; lia.
Qed.

Lemma lzs_shape a : length a = 8%nat -> lzs_shape_b a = true.
Proof.
  intros H. destruct (length8 a H) as (a0 & a1 & a2 & a3 & a4 & a5 & a6 & a7 & ->).
  destruct (nz_pat a0 a1 a2 a3 a4 a5 a6 a7) as (k & Hk & E).
  pose proof (all_below_spec _ _ lzs_shape_sweep k Hk) as S. cbv beta in S.
  rewrite <- E in S. unfold lzs_shape_b in *. rewrite lzs_nz in S.
  destruct (longest_zero_sequence [a0; a1; a2; a3; a4; a5; a6; a7]) as [cs ce].
  rewrite zrun_nz in S. exact S.
Qed.

(* ------------------------------------------------------------------ the round trip *)

Local Arguments hex4 : simpl never.
Local Arguments parse_ipv6addr : simpl never.

Lemma xr_bind_ok {A B} (a : A) (f : A -> xr B) : xr_bind (XOk a) f = f a.
Proof. reflexivity. Qed.

Ltac v6_side :=
  match goal with
  | |- _ < 65536 => assumption
  | |- _ < 8 => vm_compute; reflexivity
  | |- length _ = 8%nat => repeat rewrite upd_nth_length; reflexivity
  | |- hex4 _ ++ _ <> [] => apply hex4_app_nonnil
  | |- hex4 _ <> [] => apply hex4_nonnil
  | |- _ :: _ <> [] => discriminate
  end.

Ltac v6_steps :=
  repeat first
    [ rewrite v6m_piece_colon by v6_side
    | rewrite v6m_piece_last by v6_side
    | rewrite v6m_compress by v6_side
    | rewrite v6m_nil ].

(* run the write loop on a list of eight variables: cbn stops at each Z.to_nat of a concrete index *)
Ltac to_nat_consts :=
  repeat (cbn; match goal with |- context [Pos.to_nat ?p] =>
            let n := eval compute in (Pos.to_nat p) in change (Pos.to_nat p) with n end); cbn.

Ltac v6_case Hl :=
  unfold write_ipv6, write_ipv6_o; rewrite Hl; to_nat_consts; rewrite ?app_nil_r;
  first [ rewrite parse_ipv6addr_cc | rewrite parse_ipv6addr_piece by assumption ];
  v6_steps;
  rewrite xr_bind_ok; vm_compute; reflexivity.

Theorem parse_write_ipv6 a :
  length a = 8%nat -> Forall (fun x => x < 65536) a -> parse_ipv6addr (write_ipv6 a) = XOk a.
Proof.
  intros Hlen Hall.
  pose proof (lzs_shape a Hlen) as Hs.
  destruct (length8 a Hlen) as (a0 & a1 & a2 & a3 & a4 & a5 & a6 & a7 & ->).
  repeat match goal with H : Forall _ (_ :: _) |- _ => inversion H; clear H; subst end.
  unfold lzs_shape_b in Hs.
  destruct (longest_zero_sequence [a0; a1; a2; a3; a4; a5; a6; a7]) as [cs ce] eqn:Hl.
  destruct (cs =? -1)%Z eqn:Ecs.
  - assert (cs = (-1)%Z) by lia. assert (ce = (-2)%Z) by lia. subst cs ce. clear Hs Ecs.
    v6_case Hl.
  - repeat (apply andb_true_iff in Hs; destruct Hs as [Hs ?]).
    assert (Hcs : (cs = 0 \/ cs = 1 \/ cs = 2 \/ cs = 3 \/ cs = 4 \/ cs = 5 \/ cs = 6)%Z) by lia.
    assert (Hce : (ce = 2 \/ ce = 3 \/ ce = 4 \/ ce = 5 \/ ce = 6 \/ ce = 7 \/ ce = 8)%Z) by lia.
    destruct Hcs as [->|[->|[->|[->|[->|[->| ->]]]]]];
    destruct Hce as [->|[->|[->|[->|[->|[->| ->]]]]]]; try lia;
    match goal with Hz : zrun _ _ _ = true |- _ =>
      cbv [zrun Z.to_nat Pos.to_nat Pos.iter_op Nat.add Nat.sub Init.Nat.add Init.Nat.sub seq forallb nth] in Hz;
      repeat (apply andb_true_iff in Hz; let Hx := fresh "Hx" in destruct Hz as [Hx Hz]; apply N.eqb_eq in Hx; subst)
    end;
    v6_case Hl.
Qed.
