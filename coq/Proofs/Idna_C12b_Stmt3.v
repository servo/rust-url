(* Proofs/Idna_C12b_Stmt3.v - C12 with the adapter premises of the C10 idempotence theorem (Proofs/Idna_C10c_Idem.v).
   - C12_statement2 (Proofs/Idna_C10b_Stmt.v) is FALSE for an abstract adapter, for the same reason as
     C10_idem_statement2: its adapter premises do not relate map_normalize of the tail of a label to the ASCII prefix
     that uts46.rs copies into the buffer (adapter ctxad of Proofs/Idna_C10c_Refute.v: ToUnicode of the ASCII form of
     "ab" U+00EA reports an error).  A refutation of the statement, not a defect of the crate.
   - C12_statement3: the same statement with the two further sampled premises AdapterUSV and MapPrefix.  Refuted as a
     whole by c12_statement3_refuted (Proofs/Idna_C12c_Stmt4.v); the statement that holds is C12_statement5 (c12_5,
     Proofs/Idna_C12d_Stmt5.v).
   - proved part (c12_ascii_form): under the premises of C12_statement3 (no exclusion of Known_C12 / Known_C11 needed),
     for every accepted name whose ASCII form a is outside Known_C10_long: ToASCII returns a for a (borrowed), and
     ToUnicode reports no error for a, nor for the name itself - the "no error" half of clause u_of_a. *)
From RU Require Import Base.Prelude Base.Utf8 Base.U32_c13 Gen.Tables Model.Punycode Model.Uts46
  Proofs.Idna_Sim Proofs.Idna_Api Proofs.Idna_Known Proofs.Idna_Hyp Proofs.Idna_C12 Proofs.Idna_C10_Deny Proofs.Idna_C10_Prefix
  Proofs.Idna_C10_Inner Proofs.Idna_C10_Walk Proofs.Idna_C10b_Long Proofs.Idna_C10b_Stmt Proofs.Idna_WalkEnc
  Proofs.Idna_C10c_Drun Proofs.Idna_C10c_Idem Proofs.Idna_C10c_Example Proofs.Idna_C10c_Refute.

Section Statement3.
Variable A : adapter.
Variable cfg : bool.
Definition C12_statement3 : Prop :=
  AdapterOK A -> AdapterUSV A -> NvNoTrunc A -> NvIdem A -> AsciiNoMark A -> MapPrefix A -> forall d deny hy b a,
  bytes d -> valid_deny deny -> Known_C12 A cfg d deny hy = false -> Known_C11 A cfg d deny hy = false ->
  to_ascii A cfg d deny hy DIgnore = Ok (b, a) -> Known_C10_long a = false ->
  let u := ui_text (to_unicode A cfg d deny hy) in
  (ui_text (to_unicode A cfg a deny hy) = u /\ ui_err (to_unicode A cfg a deny hy) = false) /\
  (exists b', to_ascii A cfg (utf8_encode u) deny hy DIgnore = Ok (b', a)) /\
  (ui_text (to_unicode A cfg (utf8_encode u) deny hy) = u /\ ui_err (to_unicode A cfg (utf8_encode u) deny hy) = false) /\
  (forall p, exists b', to_ascii A cfg (utf8_encode (ui_text (to_user_interface A cfg d deny hy p))) deny hy DIgnore = Ok (b', a)).
End Statement3.

Lemma ui_err_of_accept A cfg x deny hy b a : Redisc A cfg deny ->
  to_ascii A cfg x deny hy DIgnore = Ok (b, a) -> ui_err (to_unicode A cfg x deny hy) = false.
Proof.
  intros HR H. destruct (to_unicode A cfg x deny hy) as [bu t e|s] eqn:E; [|reflexivity].
  cbn [ui_err]. exact (c12_accepted_no_error A cfg x deny hy b a bu t e HR H E).
Qed.

Theorem c12_ascii_form A cfg : AdapterOK A -> AdapterUSV A -> NvNoTrunc A -> NvIdem A -> AsciiNoMark A -> MapPrefix A ->
  forall d deny hy b a, bytes d -> valid_deny deny ->
  to_ascii A cfg d deny hy DIgnore = Ok (b, a) -> Known_C10_long a = false ->
  to_ascii A cfg a deny hy DIgnore = Ok (true, a) /\
  ui_err (to_unicode A cfg a deny hy) = false /\ ui_err (to_unicode A cfg d deny hy) = false.
Proof.
  intros HOK HUSV HNT HNI HNM HMP d deny hy b a Hb Hv H Hlong.
  destruct (valid_deny_facts deny Hv) as [HU HL].
  pose proof (redisc_of_adapter A cfg deny (ok_nil A HOK) HU) as HR.
  pose proof (c10_idem3 A cfg HOK HUSV HNT HNI HNM HMP d deny hy DIgnore b a Hb Hv H Hlong) as Hi.
  split; [exact Hi|]. split; [exact (ui_err_of_accept A cfg a deny hy true a HR Hi)|exact (ui_err_of_accept A cfg d deny hy b a HR H)].
Qed.

Lemma w_c12_stmt2 :
  Known_C12 ctxad false W_idem2 DENY_EMPTY HAllow = false /\ Known_C11 ctxad false W_idem2 DENY_EMPTY HAllow = false /\
  to_unicode ctxad false W_idem2 DENY_EMPTY HAllow = UI false [97; 98; 234] false /\
  to_unicode ctxad false W_idem2_A DENY_EMPTY HAllow = UI false [97; 98; 65533] true.
Proof. vm_compute. repeat split; reflexivity. Qed.

Theorem c12_statement2_refuted : exists A cfg, AdapterOK A /\ NvNoTrunc A /\ NvIdem A /\ AsciiNoMark A /\ ~ C12_statement2 A cfg.
Proof.
  exists ctxad, false. destruct ctxad_premises as (H1 & H2 & H3 & H4).
  split; [exact H1|]. split; [exact H2|]. split; [exact H3|]. split; [exact H4|]. intros HS.
  destruct w_idem2 as (E1 & E2 & _). destruct w_c12_stmt2 as (K1 & K2 & _ & U2).
  assert (Hb : bytes W_idem2) by (unfold W_idem2; repeat constructor; unfold is_byte; lia).
  destruct (HS H1 H2 H3 H4 W_idem2 DENY_EMPTY HAllow false W_idem2_A Hb deny_empty_valid K1 K2 E1 E2) as ((_ & Hx) & _).
  rewrite U2 in Hx. discriminate.
Qed.

Example c12_ascii_form_premises_hold :
  to_ascii lowsan true W_idem3 DENY_URL HCheck DIgnore = Ok (false, W_idem3_A) /\ Known_C10_long W_idem3_A = false /\
  to_unicode lowsan true W_idem3_A DENY_URL HCheck = UI false [97; 46; 98; 252; 99; 104; 101; 114] false.
Proof. vm_compute. repeat split; reflexivity. Qed.
