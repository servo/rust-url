(* Proofs/C02_Reach.v - the quantifier of C02: every Url obtainable through the modelled public
   API (parse, join, every mutator of Model/Setters.v with arbitrary arguments), the computable
   classes of steps that exhibit a known defect of rust-url (Known_F_Cxx_n for finding F-Cxx-n of DESIGN.md)
   and are excluded, and witnesses (by computation) showing that each excluded class really contains a
   history whose result is not a fixpoint of serialize-then-parse.
   The quantifiers: Reachable (here), Reachable2 (C02_Hist), Reachable3 (C02_Reach3), Reachable4 (C02_Stmt4), each a
   restriction or extension of the one before.  The histories for which the fixpoint property is proved:
   ReachC (C02_ReachPartial, reach_partial), ReachC2 (C02_Reach3), and for N = 4 .. 10 file C02_ReachN.v holds ReachC(N-1)
   with its example reach(N-1)_example and, for N = 5, 7, 8, 9, 10, its theorem reach_partial(N-1) (Properties/C02.v has
   C02_reach_partial2, 3, 5); each ReachCn contains the one before. *)
From Coq Require Import String Ascii.
From RU Require Import Base.Prelude Base.Utf8 Model.HostT Model.UrlRecord Model.Parser Model.Setters Model.WF.

(* ASCII string literal -> list of code points / bytes *)
Definition B (s : string) : list N := List.map N_of_ascii (list_ascii_of_string s).

Inductive op :=
| OSetFragment (f : option (list N))
| OSetQuery (q : option (list N))
| OSetPath (p : list N)
| OSetPort (p : option N)
| OSetHost (h : option (list N))
| OSetIpHost (h : host)
| OSetPassword (p : option (list N))
| OSetUsername (s : list N)
| OSetScheme (s : list N)
| OPathSegments (ops : list psm_op)          (* one editing session: open, operations, drop *)
| OQProtocol (s : list N) | OQUsername (s : list N) | OQPassword (s : list N)
| OQHost (s : list N) | OQHostname (s : list N) | OQPort (s : list N)
| OQPathname (s : list N) | OQSearch (s : list N) | OQHash (s : list N).

Definition usv_opt (o : option (list N)) : Prop := match o with Some s => usv_list s | None => True end.
Definition psm_op_ok (o : psm_op) : Prop :=
  match o with
  | PPush s => usv_list s
  | PExtend ss => Forall usv_list ss
  | _ => True
  end.

(* arguments are Rust values: &str = scalar values, u16, IpAddr *)
Definition op_args_ok (o : op) : Prop :=
  match o with
  | OSetFragment f => usv_opt f
  | OSetQuery q => usv_opt q
  | OSetPath p => usv_list p
  | OSetPort p => match p with Some n => n <= 65535 | None => True end
  | OSetHost h => usv_opt h
  | OSetIpHost h => match h with
                    | HIpv4 a => a < 4294967296
                    | HIpv6 p => length p = 8%nat /\ Forall (fun x => x < 65536) p
                    | HDomain _ => False
                    end
  | OSetPassword p => usv_opt p
  | OSetUsername s | OSetScheme s | OQProtocol s | OQUsername s | OQPassword s | OQHost s | OQHostname s
  | OQPort s | OQPathname s | OQSearch s | OQHash s => usv_list s
  | OPathSegments ops => Forall psm_op_ok ops
  end.

Section Reach.
Variable dbg : bool.
Variable hp hpo : list N -> result host.
Variable hd : host -> list N.

(* None = the Rust code panics: no Url value results *)
Definition apply_op (u : url) (o : op) : option url :=
  match o with
  | OSetFragment f => set_fragment dbg u f
  | OSetQuery q => set_query dbg u q
  | OSetPath p => set_path dbg u p
  | OSetPort p => option_map fst (set_port dbg u p)
  | OSetHost h => option_map fst (set_host dbg hp hpo hd u h)
  | OSetIpHost h => option_map fst (set_ip_host dbg hd u h)
  | OSetPassword p => option_map fst (set_password dbg u p)
  | OSetUsername s => option_map fst (set_username dbg u s)
  | OSetScheme s => option_map fst (set_scheme dbg u s)
  | OPathSegments ops => option_map fst (path_segments_session dbg u ops)
  | OQProtocol s => option_map fst (q_set_protocol dbg u s)
  | OQUsername s => option_map fst (q_set_username dbg u s)
  | OQPassword s => option_map fst (q_set_password dbg u s)
  | OQHost s => option_map fst (q_set_host dbg hp hpo hd u s)
  | OQHostname s => option_map fst (q_set_hostname dbg hp hpo hd u s)
  | OQPort s => option_map fst (q_set_port dbg u s)
  | OQPathname s => q_set_pathname dbg u s
  | OQSearch s => q_set_search dbg u s
  | OQHash s => q_set_hash dbg u s
  end.

Definition scheme_of (u : url) : list N := nfirstn (scheme_end u) (ser u).
Definition path_of (u : url) : list N :=
  match query_start u, fragment_start u with
  | Some i, _ | None, Some i => nfirstn (i - path_start u) (nskipn (path_start u) (ser u))
  | None, None => nskipn (path_start u) (ser u)
  end.
Definition is_cbb (u : url) : bool := negb (starts_with [47] (nskipn (scheme_end u + 1) (ser u))).
Definition has_marker (u : url) : bool := negb (has_authority_b u) && (path_start u =? scheme_end u + 3).
Definition path_leads_ss (u : url) : bool := starts_with s_ss (nskipn (path_start u) (ser u)).

(* F-C03-5: a host or path setter applied to an authority-less URL serialised with the "/." marker *)
Definition is_host_or_path_op (o : op) : bool :=
  match o with
  | OSetHost _ | OSetIpHost _ | OQHost _ | OQHostname _ | OSetPath _ | OQPathname _ | OPathSegments _ => true
  | _ => false
  end.
Definition Known_F_C03_5 (u : url) (o : op) : bool := has_marker u && is_host_or_path_op o.

(* F-C02-3: set_path on an opaque path with '?' / '#' in the argument, or a trailing space *)
Definition ends_in_space (p : list N) : bool :=
  match rev (filter (fun c => negb (is_tnl c)) p) with 32 :: _ => true | _ => false end.
Definition Known_F_C02_3 (u : url) (o : op) : bool :=
  match o with
  | OSetPath p => is_cbb u && (existsb (fun c => (c =? 63) || (c =? 35)) p || ends_in_space p)
  | _ => false
  end.

(* F-C02-2: set_host(None) on a URL whose path starts with "//" *)
Definition Known_F_C02_2 (u : url) (o : op) : bool :=
  match o with
  | OSetHost None => has_host u && path_leads_ss u
  | _ => false
  end.

(* F-C02-8: a path setter on an authority-less URL whose resulting path starts with "//"
   (the class is decided by running the setter: "//x", "/.//x", "/a/..//x" all qualify) *)
Definition Known_F_C02_8 (u : url) (o : op) : bool :=
  match o with
  | OSetPath _ | OQPathname _ =>
      negb (has_authority_b u) && negb (is_cbb u)
      && match apply_op u o with
         | Some u' => (path_start u' =? scheme_end u' + 1) && path_leads_ss u'
         | None => false
         end
  | _ => false
  end.

(* F-C02-4: host setters on file: URLs; an empty host given to a URL with port or credentials *)
Definition is_file (u : url) : bool := list_eqb (scheme_of u) s_file.
Definition has_credentials_or_port (u : url) : bool :=
  negb (username_end u =? host_start u) || (match port u with Some _ => true | None => false end).
Definition Known_F_C02_4 (u : url) (o : op) : bool :=
  match o with
  | OSetHost (Some h) =>
      is_file u || ((match h with [] => true | _ => false end) && has_credentials_or_port u)
  | OQHost _ | OQHostname _ | OSetIpHost _ => is_file u
  | _ => false
  end.

(* the file: drive-letter family (F-C01-1, F-C02-1, F-C02-6, F-C02-7): a file URL one of whose path
   segments looks like a drive letter.  An over-approximation of the failing records. *)
Definition wdl_like (seg : list N) : bool :=
  match seg with a :: b :: _ => is_alpha a && ((b =? 58) || (b =? 124)) | _ => false end.
Definition Known_file_drive (u : url) : bool :=
  is_file u && existsb wdl_like (split_on 47 (path_of u)).

Definition known_step (u : url) (o : op) : bool :=
  Known_F_C03_5 u o || Known_F_C02_3 u o || Known_F_C02_2 u o || Known_F_C02_8 u o || Known_F_C02_4 u o.

Inductive Reachable : url -> Prop :=
| R_parse ovr input u :
    usv_list input -> parse_url dbg hp hpo hd ovr None input = POk u ->
    Known_file_drive u = false -> Reachable u
| R_join ovr b input u :
    Reachable b -> usv_list input -> parse_url dbg hp hpo hd ovr (Some b) input = POk u ->
    Known_file_drive u = false -> Reachable u
| R_step u o u' :
    Reachable u -> op_args_ok o -> known_step u o = false -> apply_op u o = Some u' ->
    Known_file_drive u' = false -> Reachable u'.

(* the receiver's view: Url::parse(u.as_str()) *)
Definition reparse (u : url) : pres url := parse_url dbg hp hpo hd None None (utf8_lossy (ser u)).
Definition Fixpoint_of_reparse (u : url) : Prop := reparse u = POk u.

End Reach.

(* what the host functions must satisfy (C09's theorems about Model/Host.v, when linked):
   displaying a parsed host gives ASCII text free of the delimiters the authority state looks for,
   which parses back to the same host with both host parsers' callers.
   host_text_ok t: the host scan of the authority state reads exactly t and stops at a following ':' '/' '?' '#'
   (or '\' for a special scheme); the credentials scan finds no '@' in t (scan_last_at .. = None) *)
Definition host_text_ok (t : list N) : Prop :=
  ascii t /\ t <> []
  /\ (forall special rest,
        match rest with [] => True | c :: _ => (c =? 58) || (c =? 47) || (c =? 63) || (c =? 35) || ((c =? 92) && special) = true end ->
        host_scan special false [] (t ++ rest) = (t, rest))
  /\ scan_last_at true t 0 None = None.
Definition HostOK (hp hpo : list N -> result host) (hd : host -> list N) : Prop :=
  (forall s h, hp s = Ok h -> h <> HDomain [] -> host_text_ok (hd h) /\ hp (hd h) = Ok h)
  /\ (forall s h, hpo s = Ok h -> h <> HDomain [] -> host_text_ok (hd h) /\ hpo (hd h) = Ok h)
  /\ (forall h, op_args_ok (OSetIpHost h) -> host_text_ok (hd h) /\ hp (hd h) = Ok h /\ hpo (hd h) = Ok h)
  /\ hd (HDomain []) = [] /\ hp [] = Ok (HDomain []) /\ hpo [] = Ok (HDomain []).

(* C02_statement_v1: the statement over Reachable under HostOK.
   HostOK cannot be met by url::Host (Proofs/C02_Hist.v HostOK_old_unsat, C09_host_records_refuted), so this
   statement says nothing about the real host functions, and read for them it is false (F-C02-9, a step outside
   known_step).  C02_Hist has the statement over HostOK2 / known_step2 / Reachable2; theorems of other properties
   are stated about HostOK / known_step / Reachable. *)
Definition C02_statement_v1 : Prop :=
  forall dbg hp hpo hd, HostOK hp hpo hd ->
  forall u, Reachable dbg hp hpo hd u -> Fixpoint_of_reparse dbg hp hpo hd u.

(* host functions good enough for the witnesses: every text is a domain *)
Definition toy_hp (s : list N) : result host := Ok (HDomain s).
Definition toy_hd (h : host) : list N :=
  match h with HDomain d => d | HIpv4 _ => B "127.0.0.1" | HIpv6 _ => B "[::1]" end.

Definition toy_parse (s : string) : pres url := parse_url true toy_hp toy_hp toy_hd None None (B s).
Definition toy_apply := apply_op true toy_hp toy_hp toy_hd.
Definition toy_reparse := reparse true toy_hp toy_hp toy_hd.
Definition pres_eqb (r : pres url) (u : url) : bool := match r with POk v => url_eqb v u | _ => false end.

(* a history start ;; op : the step is in the class, the result exists, and its serialization
   does not parse back to it *)
Definition witness_step (K : url -> op -> bool) (start : string) (o : op) (result : string) : bool :=
  match toy_parse start with
  | POk u => K u o && match toy_apply u o with
                      | Some u' => list_eqb (ser u') (B result) && negb (pres_eqb (toy_reparse u') u')
                      | None => false
                      end
  | _ => false
  end.

Lemma F_C03_5_refuted :
  witness_step (fun u o => Known_F_C03_5 u o) "non-spec:/.//double" (OSetIpHost (HIpv4 2130706433))
               "non-spec://127.0.0.1/.//double" = true
  /\ witness_step (fun u o => Known_F_C03_5 u o) "a:/.//x" (OSetPath (B "/y")) "a:/./y" = true.
Proof. vm_compute. split; reflexivity. Qed.

Lemma F_C02_3_refuted :
  witness_step (fun u o => Known_F_C02_3 u o) "about:blank" (OSetPath (B "#f")) "about:#f" = true
  /\ witness_step (fun u o => Known_F_C02_3 u o) "a:b" (OSetPath (B "c ")) "a:c " = true.
Proof. vm_compute. split; reflexivity. Qed.

Lemma F_C02_2_refuted :
  witness_step (fun u o => Known_F_C02_2 u o) "a://host//x" (OSetHost None) "a://x" = true.
Proof. vm_compute. reflexivity. Qed.

Lemma F_C02_8_refuted :
  witness_step (Known_F_C02_8 true toy_hp toy_hp toy_hd) "a:/p" (OSetPath (B "//x")) "a://x" = true
  /\ witness_step (Known_F_C02_8 true toy_hp toy_hp toy_hd) "a:/p" (OSetPath (B "/.//x")) "a://x" = true.
Proof. vm_compute. split; reflexivity. Qed.

Lemma F_C02_4_refuted :
  witness_step (fun u o => Known_F_C02_4 u o) "a://h:80/" (OSetHost (Some [])) "a://:80/" = true.
Proof. vm_compute. reflexivity. Qed.

(* plain parsing in the file family (F-C02-1): file://x.y///c: parses to file://x.y/c:, which
   re-parses to file:///c: *)
Lemma F_C02_1_refuted :
  match toy_parse "file://x.y///c:" with
  | POk u => Known_file_drive u && list_eqb (ser u) (B "file://x.y/c:")
             && match toy_reparse u with
                | POk v => list_eqb (ser v) (B "file:///c:") && negb (url_eqb v u)
                | _ => false
                end
  | _ => false
  end = true.
Proof. vm_compute. reflexivity. Qed.
