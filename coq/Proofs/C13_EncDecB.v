(* Proofs/C13_EncDecB.v - encode after decode, over the checked decoder: if b_dec_loop reads R from a
   state that matches the encoder's position in the FINAL string s and returns s, then the encoder's
   remaining output on s is R in lower case, and the walk w_inner / w_outer succeeds.  The decoder's next
   insertion is identified with the encoder's next occurrence by the <n, i> monotonicity (b_mono). *)
From RU Require Import Base.Prelude Base.U32_c13 Spec.Rfc3492 Proofs.C13_Enc
  Proofs.C13_Rt Proofs.C13_DecB Proofs.C13_RtB Proofs.C13_Mono Proofs.C13_Parse.

(* the decoder's state is well formed: nothing above nd in the output, no nd at index id or later *)
Definition good (nd id : N) (out : list N) : Prop :=
  all_le nd out /\ forall A B, out = A ++ B -> id <= len A -> Forall (fun c => c < nd) B.

Lemma filter_le_le c m l : c <= m -> filter (le_m c) (filter (le_m m) l) = filter (le_m c) l.
Proof.
  intros H. induction l as [|a l IH]; [reflexivity|]. cbn [filter].
  destruct (le_m m a) eqn:E1; destruct (le_m c a) eqn:E2; cbn [filter]; rewrite ?E2, ?IH; try reflexivity;
    unfold le_m in *; lia.
Qed.

Lemma filter_le_lt c m l : c < m -> filter (le_m c) (filter (lt_m m) l) = filter (le_m c) l.
Proof.
  intros H. induction l as [|a l IH]; [reflexivity|]. cbn [filter].
  destruct (lt_m m a) eqn:E1; destruct (le_m c a) eqn:E2; cbn [filter]; rewrite ?E2, ?IH; try reflexivity;
    unfold le_m, lt_m in *; lia.
Qed.

Lemma len_filter_lt_le m l : len (filter (lt_m m) l) <= len (filter (le_m m) l).
Proof.
  induction l as [|a l IH]; [cbn; lia|]. cbn [filter].
  destruct (lt_m m a) eqn:E1; destruct (le_m m a) eqn:E2; rewrite ?len_cons; unfold le_m, lt_m in *; lia.
Qed.

(* below m the final string and the partial output agree *)
Lemma enc_below c m pre suf : c < m ->
  filter (le_m c) (pre ++ m :: suf) = filter (le_m c) (filter (le_m m) pre ++ filter (lt_m m) suf).
Proof.
  intros H. rewrite !filter_app. cbn [filter]. unfold le_m at 2. replace (m <=? c) with false by lia.
  rewrite filter_le_le by lia. rewrite filter_le_lt by exact H. reflexivity.
Qed.

(* up to m the final string has one element more than the partial output *)
Lemma count_contra m pre suf :
  filter (le_m m) (pre ++ m :: suf) = filter (le_m m) (filter (le_m m) pre ++ filter (lt_m m) suf) -> False.
Proof.
  intros H. apply (f_equal len) in H. rewrite !filter_app, !len_app in H. cbn [filter] in H.
  unfold le_m at 2 in H. replace (m <=? m) with true in H by lia. rewrite len_cons in H.
  rewrite filter_le_le in H by lia.
  pose proof (len_filter_le (le_m m) (filter (lt_m m) suf)) as H1.
  pose proof (len_filter_lt_le m suf) as H2. lia.
Qed.

(* one delta read at the start of a delta (weight 1, k = base) *)
Lemma vli_parse_use dig (Hd : forall c d, dig c = Some d -> d < 36 /\ to_lower c = s_digit_char d)
    R id nd bias out s : R <> [] ->
  b_dec_loop dig R false id 1 s_base id nd bias out = Some s ->
  exists q D R', R = D ++ R'
    /\ (forall f, q < 2 ^ N.of_nat f -> map to_lower D = s_enc_vli (S f) q s_base bias)
    /\ id + q <= U32_MAX
    /\ b_dec_break (b_dec_loop dig) R' id (id + q) nd bias out = Some s.
Proof.
  intros HR H. destruct (vli_parse dig Hd R _ _ _ _ _ _ _ _ _ HR H) as [q [D [R' [E [F [B Hb]]]]]].
  rewrite N.mul_1_r in B, Hb. exists q, D, R'. split; [exact E|]. split; [exact F|]. split; [exact B|exact Hb].
Qed.

Section ED.
  Variable dig : N -> option N.

  (* the element the decoder inserts next is the encoder's next occurrence of m *)
  Lemma next_insertion pre suf m nd id out R' s n1 pos1 bias1 :
    s = pre ++ m :: suf -> out = filter (le_m m) pre ++ filter (lt_m m) suf ->
    nd <= m -> nd <= n1 -> pos1 <= len out -> (n1 = nd -> id <= pos1) -> good nd id out ->
    b_dec_loop dig R' false (pos1 + 1) 1 s_base (pos1 + 1) n1 bias1 (s_insert_at pos1 n1 out) = Some s ->
    n1 = m /\ pos1 = len (filter (le_m m) pre).
  Proof.
    intros Hs Hout Hnd Hn1 Hpos Hid [Gle Gsuf] Hrec.
    destruct (insert_at_split out pos1 n1 Hpos) as [A1 [B1 [E1 [E2 E3]]]].
    destruct (b_mono dig R' _ _ _ _ _ _ _ _ _ (all_le_insert nd n1 pos1 out Hn1 Hpos Gle) Hrec) as [I1 I2].
    destruct (I2 (A1 ++ [n1]) B1) as [B' HB'].
    { rewrite E3, <- app_assoc. reflexivity. }
    { rewrite len_app, E2. change (len [n1]) with 1. lia. }
    rewrite <- app_assoc in HB'. cbn [app] in HB'.
    destruct (N.lt_trichotomy n1 m) as [Hlt|[Heq|Hgt]].
    - exfalso. rewrite Hs, (enc_below n1 m pre suf Hlt), <- Hout in HB'.
      assert (Hin : In n1 (filter (le_m n1) out)) by (rewrite HB'; apply in_or_app; right; left; reflexivity).
      apply filter_In in Hin. destruct Hin as [Hin _].
      unfold all_le in Gle. rewrite Forall_forall in Gle. pose proof (Gle n1 Hin) as Hle1.
      assert (Hnn : n1 = nd) by lia. subst n1.
      rewrite filter_all_le in HB' by (unfold all_le; rewrite Forall_forall; exact Gle).
      pose proof (Gsuf A1 B1 E1 ltac:(specialize (Hid eq_refl); lia)) as HF.
      rewrite E1 in HB'. apply app_inv_head in HB'. rewrite HB' in HF. inversion HF. lia.
    - subst n1. split; [reflexivity|].
      rewrite Hs in HB'. rewrite filter_app in HB'. cbn [filter] in HB'. unfold le_m at 2 in HB'.
      replace (m <=? m) with true in HB' by lia.
      symmetry in HB'. destruct (app_eq_app _ _ _ _ HB') as [l [[Ha Hb]|[Ha Hb]]].
      + destruct l as [|x l'].
        * rewrite app_nil_r in Ha. rewrite <- E2, Ha. reflexivity.
        * exfalso. cbn [app] in Hb. inversion Hb. subst x.
          rewrite Hout, Ha in E1. rewrite <- app_assoc in E1. apply app_inv_head in E1.
          assert (Hin : In m (filter (lt_m m) suf)) by (rewrite E1; left; reflexivity).
          apply filter_In in Hin. destruct Hin as [_ Hin]. unfold lt_m in Hin. lia.
      + destruct l as [|x l'].
        * rewrite app_nil_r in Ha. rewrite <- E2, <- Ha. reflexivity.
        * exfalso. cbn [app] in Hb. inversion Hb. subst x.
          pose proof E1 as E1'. rewrite Hout, Ha, <- app_assoc in E1'. apply app_inv_head in E1'. cbn [app] in E1'.
          destruct (N.eq_dec nd m) as [Hnm|Hnm].
          -- pose proof (Gsuf A1 B1 E1 ltac:(specialize (Hid (eq_sym Hnm)); lia)) as HF.
             rewrite <- E1' in HF. inversion HF. lia.
          -- unfold all_le in Gle. rewrite Forall_forall in Gle.
             assert (Hin : In m out) by (rewrite E1, <- E1'; apply in_or_app; right; left; reflexivity).
             pose proof (Gle m Hin). lia.
    - exfalso. pose proof (I1 m Hgt) as HI. rewrite filter_insert_drop in HI by assumption.
      rewrite Hs, Hout in HI. exact (count_contra m pre suf HI).
  Qed.

  Hypothesis Hd : forall c d, dig c = Some d -> d < 36 /\ to_lower c = s_digit_char d.

  Lemma c_inner : forall suf pre m b d bias h nd id out R s,
    s = pre ++ suf -> coupled m b pre suf d h nd id out -> good nd id out ->
    b_dec_loop dig R false id 1 s_base id nd bias out = Some s ->
    match s_enc_inner suf m b d bias h with
    | (d', bias', h', o) =>
        exists R' nd' id' out',
          map to_lower R = o ++ map to_lower R'
          /\ b_dec_loop dig R' false id' 1 s_base id' nd' bias' out' = Some s
          /\ coupled m b (pre ++ suf) [] d' h' nd' id' out' /\ good nd' id' out'
          /\ w_inner suf m d h id (len (filter (le_m m) pre)) = Some (d', h', id')
    end.
  Proof.
    induction suf as [|c suf IH]; intros pre m b d bias h nd id out R s Hs C Hg Hdec.
    - cbn [s_enc_inner w_inner]. exists R, nd, id, out. rewrite app_nil_r. cbn [app].
      split; [reflexivity|]. split; [exact Hdec|]. split; [exact C|]. split; [exact Hg|reflexivity].
    - rewrite s_enc_inner_cons. cbv zeta. rewrite w_inner_cons.
      replace (pre ++ c :: suf) with ((pre ++ [c]) ++ suf) in * by (rewrite <- app_assoc; reflexivity).
      specialize (IH (pre ++ [c]) m b). rewrite len_filter_le_snoc in IH.
      destruct (N.lt_trichotomy c m) as [Hc|[->|Hc]].
      + replace (c =? m) with false by lia. replace (c <? m) with true by lia. replace (c <=? m) with true in IH by lia.
        exact (IH _ bias _ _ _ _ R s Hs (coupled_lt _ _ _ _ _ _ _ _ _ _ Hc C) Hg Hdec).
      + (* the encoder's next occurrence of m: the decoder must insert exactly it *)
        rewrite N.eqb_refl. replace (m <? m) with false by lia. replace (m <=? m) with true in IH by lia.
        destruct (coupled_eq _ _ _ _ _ _ _ _ _ C) as (Hpos & Hn & Hmod & C').
        destruct C as (Hout & Hh & Hnd & _ & Hfl & _).
        (* quotient and remainder by h + 1 as plain variables, for lia *)
        assert (Hh1 : h + 1 <> 0) by (clear; lia).
        pose proof (N.div_mod (id + d) (h + 1) Hh1) as E2. rewrite Hmod in E2. clear Hmod.
        remember ((id + d) / (h + 1)) as dd eqn:Edd. clear Edd.
        rewrite filter_lt_cons in Hout. replace (m <? m) with false in Hout by lia. cbn [app] in Hout.
        remember (len (filter (le_m m) pre)) as pos.
        assert (Hs2 : s = pre ++ m :: suf) by (rewrite Hs, <- app_assoc; reflexivity).
        assert (HR : R <> []).
        { intros ->. cbn [b_dec_loop] in Hdec. inversion Hdec as [Ho].
          apply (count_contra m pre suf). rewrite <- Hs2, <- Hout, Ho. reflexivity. }
        destruct (vli_parse_use dig Hd R id nd bias out s HR Hdec) as [q [D [R' [ER [FD [Bq Hbr]]]]]].
        apply b_dec_break_inv in Hbr. rewrite <- Hh in Hbr. destruct Hbr as (_ & _ & Hbr).
        pose proof (N.div_mod (id + q) (h + 1) Hh1) as E1.
        pose proof (N.mod_lt (id + q) (h + 1) Hh1) as Hml.
        remember ((id + q) / (h + 1)) as dq eqn:Edq. remember ((id + q) mod (h + 1)) as pos1 eqn:Epos1. clear Edq Epos1.
        destruct (next_insertion pre suf m nd id out R' s (nd + dq) pos1 (s_adapt (id + q - id) (h + 1) (id =? 0))
                    Hs2 Hout Hnd ltac:(clear; lia) ltac:(clear - Hml Hh; lia))
          as [En Ep]; [|exact Hg|exact Hbr|].
        { intros Hz. assert (Hz0 : dq = 0) by (clear - Hz; lia). subst dq. clear - E1. lia. }
        rewrite <- Heqpos in Ep.
        (* the decoder's delta is the encoder's *)
        assert (Hq : q = d).
        { assert (Ed : dq = dd) by (clear - Hn En; lia). subst dd pos1. clear - E1 E2. lia. }
        clear E1 Hml E2.
        subst q. rewrite En, Ep, Hfl in Hbr. replace (id + d - id) with d in Hbr by (clear; lia).
        replace (id + d <=? U32_MAX) with true by (clear - Bq; lia).
        specialize (IH 0 (s_adapt d (h + 1) (h =? b)) _ _ _ _ R' s Hs C').
        destruct (s_enc_inner suf m b 0 (s_adapt d (h + 1) (h =? b)) (h + 1)) as [[[d' bias'] h'] o'].
        destruct IH as (R'' & nd' & id' & out' & C1 & C2); [|exact Hbr|].
        * (* the new state is well formed: nothing above m, no m after the one just inserted *)
          destruct Hg as [Gle Gsuf]. split; [apply (all_le_insert nd m pos out Hnd); [lia|exact Gle]|].
          intros A B EAB HA. rewrite Hout, Heqpos, insert_at_app in EAB.
          assert (HF : Forall (fun c => c < m) (filter (lt_m m) suf)).
          { apply Forall_forall. intros x Hx. apply filter_In in Hx. unfold lt_m in Hx. lia. }
          replace (filter (le_m m) pre ++ m :: filter (lt_m m) suf)
            with ((filter (le_m m) pre ++ [m]) ++ filter (lt_m m) suf) in EAB by (rewrite <- app_assoc; reflexivity).
          destruct (app_eq_app _ _ _ _ EAB) as [l [[Ha Hb']|[Ha Hb']]].
          -- assert (l = []).
             { apply (f_equal len) in Ha. rewrite !len_app, <- Heqpos in Ha. change (len [m]) with 1 in Ha.
               destruct l; [reflexivity|rewrite len_cons in Ha; lia]. }
             subst l. cbn [app] in Hb'. rewrite Hb'. exact HF.
          -- rewrite Hb' in HF. apply Forall_app in HF. exact (proj2 HF).
        * exists R'', nd', id', out'. split; [|exact C2].
          rewrite ER, map_app, C1, <- app_assoc. f_equal.
          unfold s_vli_fuel. apply FD. rewrite N2Nat.id. apply N.size_gt.
      + replace (c =? m) with false by lia. replace (c <? m) with false by lia. replace (c <=? m) with false in IH by lia.
        rewrite N.add_0_r in IH.
        exact (IH _ bias _ _ _ _ R s Hs (coupled_gt _ _ _ _ _ _ _ _ _ _ Hc C) Hg Hdec).
  Qed.

  Lemma c_outer : forall fuel input b n d bias h nd id out R,
    coupled n b [] input d h nd id out -> len input - h < N.of_nat fuel -> good nd id out ->
    b_dec_loop dig R false id 1 s_base id nd bias out = Some input ->
    map to_lower R = s_enc_outer fuel input (len input) b n d bias h
    /\ w_outer fuel input (len input) n d h id = true.
  Proof.
    induction fuel as [|f IH]; intros input b n d bias h nd id out R C Hf Hg Hdec; [cbn in Hf; lia|].
    rewrite s_enc_outer_S, w_outer_S. pose proof (coupled_cnt _ _ _ _ _ _ _ _ C) as Hcnt.
    destruct (h <? len input) eqn:E.
    - destruct (min_exists input n h Hcnt ltac:(lia)) as [m Em]. rewrite Em. cbv zeta.
      apply s_min_ge_some in Em. destruct Em as [Hin [Hle Hmin]].
      pose proof (c_inner input [] m b (d + (m - n) * (h + 1)) bias h nd id out R input eq_refl
                    (coupled_min _ _ _ _ _ _ _ _ _ Hle Hmin C) Hg Hdec) as HI.
      destruct (s_enc_inner input m b (d + (m - n) * (h + 1)) bias h) as [[[d' bias'] h'] o'] eqn:Es.
      destruct HI as (R' & nd' & id' & out' & C1 & C2 & C' & Hg' & Hw).
      cbn [filter] in Hw. rewrite len_nil in Hw. rewrite Hw.
      apply s_inner_facts in Es. destruct Es as [Hh' _]. pose proof (cnt_eq_in input m Hin) as Hc.
      destruct (IH input b (m + 1) (d' + 1) bias' h' nd' id' out' R' (coupled_next _ _ _ _ _ _ _ _ C')) as [J1 J2];
        [rewrite Nat2N.inj_succ in Hf; lia|exact Hg'|exact C2|].
      split; [rewrite C1, J1; reflexivity|exact J2].
    - destruct C as (Hout & Hh & _). cbn [filter app] in Hout.
      assert (Ho : out = input).
      { rewrite Hout. apply filter_len_all. rewrite <- Hout, <- Hh. pose proof (cnt_le (fun c => c <? n) input). lia. }
      split; [|reflexivity].
      destruct R as [|c R]; [reflexivity|].
      apply b_len_bounds in Hdec. destruct Hdec as [_ Hdec]. specialize (Hdec ltac:(discriminate)). rewrite Ho in Hdec. lia.
  Qed.
End ED.
