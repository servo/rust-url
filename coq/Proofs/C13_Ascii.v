(* Proofs/C13_Ascii.v - inversion lemmas for the result monad, table facts, encoder output is ASCII. *)
From RU Require Import Base.Prelude Base.U32_c13 Gen.Tables Model.Punycode.

Lemma rbind_ok {A B : Type} (r : res A) (f : A -> res B) b :
  rbind r f = Ok b -> exists a, r = Ok a /\ f a = Ok b.
Proof. destruct r as [a| |s]; cbn [rbind]; intros H; try discriminate. exists a. split; [reflexivity|exact H]. Qed.

Lemma rbind_Ok {A B : Type} (a : A) (f : A -> res B) : rbind (Ok a) f = f a.
Proof. reflexivity. Qed.

Ltac rbind_inv H x Hx :=
  apply rbind_ok in H; destruct H as [x [Hx H]].

(* the regenerated constants are RFC 3492's (a changed constant breaks these) *)
Lemma consts_are_rfc3492 :
  BASE = 36 /\ T_MIN = 1 /\ T_MAX = 26 /\ SKEW = 38 /\ DAMP = 700 /\ INITIAL_BIAS = 72 /\ INITIAL_N = 128.
Proof. repeat split; reflexivity. Qed.

(* the digit tables in closed form *)
Definition value_to_digit_spec (v : N) : option N :=
  if v <? 26 then Some (v + 97) else if v <? 36 then Some (v - 26 + 48) else None.
Definition digit_u8_spec (b : N) : option N :=
  if (48 <=? b) && (b <=? 57) then Some (b - 48 + 26)
  else if (65 <=? b) && (b <=? 90) then Some (b - 65)
  else if (97 <=? b) && (b <=? 122) then Some (b - 97)
  else None.
Definition digit_char_spec (b : N) : option N :=
  if (48 <=? b) && (b <=? 57) then Some (b - 48 + 26)
  else if (97 <=? b) && (b <=? 122) then Some (b - 97)
  else None.

Lemma value_to_digit_table v : range_lookup T_PUNY_VALUE_TO_DIGIT v = value_to_digit_spec v.
Proof.
  unfold T_PUNY_VALUE_TO_DIGIT, value_to_digit_spec. cbn [range_lookup].
  destruct (v <? 26) eqn:E1.
  - replace ((0 <=? v) && (v <=? 25)) with true by lia. f_equal. lia.
  - replace ((0 <=? v) && (v <=? 25)) with false by lia.
    destruct (v <? 36) eqn:E2.
    + replace ((26 <=? v) && (v <=? 35)) with true by lia. reflexivity.
    + replace ((26 <=? v) && (v <=? 35)) with false by lia. reflexivity.
Qed.

Lemma digit_u8_table b : digit_u8 b = digit_u8_spec b.
Proof.
  unfold digit_u8, T_PUNY_DIGIT_U8, digit_u8_spec. cbn [range_lookup].
  destruct ((48 <=? b) && (b <=? 57)); [reflexivity|].
  destruct ((65 <=? b) && (b <=? 90)); [f_equal; lia|].
  destruct ((97 <=? b) && (b <=? 122)); [f_equal; lia|reflexivity].
Qed.

Lemma digit_char_table b : digit_char b = digit_char_spec b.
Proof.
  unfold digit_char, T_PUNY_DIGIT_CHAR, digit_char_spec. cbn [range_lookup].
  destruct ((48 <=? b) && (b <=? 57)); [reflexivity|].
  destruct ((97 <=? b) && (b <=? 122)); [f_equal; lia|reflexivity].
Qed.

Lemma value_to_digit_ok v c : value_to_digit v = Ok c -> v < 36 /\ c < 128 /\ value_to_digit_spec v = Some c.
Proof.
  unfold value_to_digit. rewrite value_to_digit_table. unfold value_to_digit_spec.
  destruct (v <? 26) eqn:E1.
  - intros H. inversion H. subst c. repeat split; lia.
  - destruct (v <? 36) eqn:E2.
    + intros H. inversion H. subst c. repeat split; lia.
    + discriminate.
Qed.

Lemma value_to_digit_total v : v < 36 -> exists c, value_to_digit v = Ok c.
Proof.
  intros H. unfold value_to_digit. rewrite value_to_digit_table. unfold value_to_digit_spec.
  destruct (v <? 26) eqn:E1; [eexists; reflexivity|].
  replace (v <? 36) with true by lia. eexists; reflexivity.
Qed.

(* both digit functions undo value_to_digit wherever it yields a code unit - by value_to_digit_total, on all of 0..35 *)
Lemma digit_of_value v c : value_to_digit v = Ok c -> digit_u8 c = Some v /\ digit_char c = Some v.
Proof.
  intros H. apply value_to_digit_ok in H. destruct H as [Hv [_ H]].
  rewrite digit_u8_table, digit_char_table. unfold value_to_digit_spec in H.
  unfold digit_u8_spec, digit_char_spec.
  destruct (v <? 26) eqn:E1.
  - inversion H. subst c.
    replace ((48 <=? v + 97) && (v + 97 <=? 57)) with false by lia.
    replace ((65 <=? v + 97) && (v + 97 <=? 90)) with false by lia.
    replace ((97 <=? v + 97) && (v + 97 <=? 122)) with true by lia.
    split; f_equal; lia.
  - replace (v <? 36) with true in H by lia. inversion H. subst c.
    replace ((48 <=? v - 26 + 48) && (v - 26 + 48 <=? 57)) with true by lia.
    split; f_equal; lia.
Qed.

(* ASCII-ness of everything the encoder writes *)
Lemma enc_vli_ascii fuel : forall q k bias ds, enc_vli fuel q k bias = Ok ds -> ascii ds.
Proof.
  induction fuel as [|f IH]; intros q k bias ds H; cbn [enc_vli] in H; [discriminate|].
  destruct (q <? threshold k bias).
  - rbind_inv H d Hd. inversion H. subst ds. apply value_to_digit_ok in Hd.
    constructor; [unfold is_ascii; lia|constructor].
  - rbind_inv H d Hd. rbind_inv H r Hr. inversion H. subst ds.
    apply value_to_digit_ok in Hd. constructor; [unfold is_ascii; lia|]. exact (IH _ _ _ _ Hr).
Qed.

Lemma enc_inner_ascii cfg ext input : forall cp bl delta bias processed d b p o,
  enc_inner cfg ext input cp bl delta bias processed = Ok (d, b, p, o) -> ascii o.
Proof.
  induction input as [|c r IH]; intros cp bl delta bias processed d b p o H; cbn [enc_inner] in H.
  - inversion H. constructor.
  - rbind_inv H delta' Hdelta.
    destruct (c =? cp).
    + rbind_inv H digits Hdig. rbind_inv H bias' Hbias. rbind_inv H st Hst.
      destruct st as [[[d1 b1] p1] o1]. inversion H. subst.
      apply ascii_app. split; [exact (enc_vli_ascii _ _ _ _ _ Hdig)|exact (IH _ _ _ _ _ _ _ _ _ Hst)].
    + exact (IH _ _ _ _ _ _ _ _ _ H).
Qed.

Lemma enc_outer_ascii fuel cfg ext input il bl : forall cp delta bias processed o,
  enc_outer fuel cfg ext input il bl cp delta bias processed = Ok o -> ascii o.
Proof.
  induction fuel as [|f IH]; intros cp delta bias processed o H; cbn [enc_outer] in H.
  - destruct (processed <? il); [discriminate|]. inversion H. constructor.
  - destruct (processed <? il); [|inversion H; constructor].
    destruct (min_ge cp input) as [m|]; [|discriminate].
    rbind_inv H product Hp. rbind_inv H delta' Hd. rbind_inv H st Hst.
    destruct st as [[[d1 b1] p1] o1]. rbind_inv H delta'' Hd2. rbind_inv H o2 Ho2. inversion H. subst o.
    apply ascii_app. split; [exact (enc_inner_ascii _ _ _ _ _ _ _ _ _ _ _ _ Hst)|exact (IH _ _ _ _ _ Ho2)].
Qed.

Lemma enc_basic_ascii input : forall il bl a b o, enc_basic input il bl = Some (a, b, o) -> ascii o.
Proof.
  induction input as [|c r IH]; intros il bl a b o H; cbn [enc_basic] in H.
  - inversion H. constructor.
  - destruct (checked_add il 1) as [il'|]; [|discriminate].
    destruct (c <? 128) eqn:E.
    + destruct (enc_basic r il' (bl + 1)) as [[[a1 b1] o1]|] eqn:E2; [|discriminate].
      inversion H. subst. constructor; [unfold is_ascii; lia|exact (IH _ _ _ _ _ E2)].
    + exact (IH _ _ _ _ _ H).
Qed.

Lemma encode_into_ascii cfg ext s p : encode_into cfg ext s = Ok p -> ascii p.
Proof.
  unfold encode_into. intros H.
  destruct (enc_basic s 0 0) as [[[il bl] basic]|] eqn:E; [|discriminate].
  rbind_inv H u Hu. rbind_inv H o Ho. inversion H. subst p.
  apply ascii_app. split; [exact (enc_basic_ascii _ _ _ _ _ _ E)|].
  apply ascii_app. split; [|exact (enc_outer_ascii _ _ _ _ _ _ _ _ _ _ _ Ho)].
  destruct (0 <? bl); [constructor; [unfold is_ascii, DELIMITER; lia|constructor]|constructor].
Qed.

Lemma encode_ascii cfg s p : encode cfg s = Ok p -> ascii p.
Proof. unfold encode. destruct (U32_MAX <? _); [discriminate|]. apply encode_into_ascii. Qed.

Lemma encode_str_ascii cfg s p : encode_str cfg s = Ok p -> ascii p.
Proof. unfold encode_str. destruct (U32_MAX <? _); [discriminate|]. apply encode_into_ascii. Qed.
