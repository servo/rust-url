(* Proofs/C09_Long.v - finding F-C10-1 at the level of hosts, and the oracle hypothesis IdnaOK2 that leaves the class out.

   F-C10-1 (Proofs/Idna_C10b_Long.v): ToASCII accepts a label of at most 1000 scalar values whose Punycode form has
   more than 2000 characters after xn--, and rejects that output.  Host::parse hands every non-bracketed input to
   ToASCII, so the clause idna_fix of IdnaOK (Proofs/C09_Host.v: every oracle output is a fixed point of the oracle)
   is FALSE of the real idna crate, and every theorem stated relative to `IdnaOK idna` says nothing about it.

   Here:
   - known_c10_long = the class Known_C10_long of Proofs/Idna_C10b_Long.v, read for host texts;
   - IdnaOK2: IdnaOK with the fixed-point clause only for outputs outside the class;
   - cap idna: the oracle that refuses the outputs inside the class; IdnaOK2 idna -> IdnaOK (cap idna), so every
     IdnaOK-relative theorem holds for the host model run with the capped oracle;
   - agreement: Host::parse with the capped oracle is Host::parse with the oracle itself unless the oracle's answer for
     the percent-decoded input is in the class, where it is Err IdnaError;
   - witnesses: a stand-in oracle that satisfies IdnaOK2, answers one input with a long label and refuses that label
     (as the crate does) - for it IdnaOK and the display round trip of C09 are false. *)
From RU Require Import Base.Prelude Base.Utf8 Gen.Tables Model.PercentEncoding Model.HostT Model.Host Proofs.C09_Host
  Proofs.C16_RT6Model.
From RU Require Model.Uts46 Proofs.Idna_C10_Deny Proofs.Idna_C10_Prefix Proofs.Idna_C10b_Long.

(* some dot-separated label starts with xn-- (any case) and has more than 2000 characters after it *)
Definition known_c10_long (d : list N) : bool := Idna_C10b_Long.Known_C10_long d.

(* a label inside the class starts with 'x' or 'X' and contains '-' *)
Lemma long_label_shape l : Forall (fun c => c < 128) l -> Idna_C10b_Long.long_puny_label l = true ->
  exists a b r, l = a :: b :: 45 :: 45 :: r /\ (a = 120 \/ a = 88).
Proof.
  intros Ha H. unfold Idna_C10b_Long.long_puny_label in H. apply andb_true_iff in H. destruct H as [Hp _].
  destruct (Idna_C10_Prefix.xn_prefix_spec l Ha Hp) as (a & b & r & E & Ha' & _). exists a, b, r. split; assumption.
Qed.

Lemma class_label d : known_c10_long d = true ->
  exists l, In l (Uts46.split_on Uts46.DOT d) /\ Idna_C10b_Long.long_puny_label l = true /\ (forall c, In c l -> In c d).
Proof.
  intros H. unfold known_c10_long, Idna_C10b_Long.Known_C10_long in H. apply existsb_exists in H.
  destruct H as (l & Hin & Hl). exists l. split; [exact Hin|]. split; [exact Hl|].
  assert (F : Forall (fun c => In c d) d) by (apply Forall_forall; intros c Hc; exact Hc).
  pose proof (Idna_C10_Deny.split_on_Forall (fun c => In c d) Uts46.DOT d F) as Hs. rewrite Forall_forall in Hs.
  intros c Hc. specialize (Hs l Hin). rewrite Forall_forall in Hs. exact (Hs c Hc).
Qed.

(* an ASCII text inside the class contains "x" or "X", and "-" *)
Lemma class_has_hyphen d : Forall (fun c => c < 128) d -> known_c10_long d = true ->
  In 45 d /\ (In 120 d \/ In 88 d).
Proof.
  intros Ha H. destruct (class_label d H) as (l & Hin & Hl & Hsub).
  assert (Hal : Forall (fun c => c < 128) l).
  { apply Forall_forall. intros c Hc. rewrite Forall_forall in Ha. exact (Ha c (Hsub c Hc)). }
  destruct (long_label_shape l Hal Hl) as (a & b & r & -> & Hx). split.
  - apply Hsub. right. right. left. reflexivity.
  - destruct Hx as [-> | ->]; [left | right]; apply Hsub; left; reflexivity.
Qed.

(* dotted decimal text is outside the class *)
Lemma digits_not_long d : Forall (fun c => is_digit c = true \/ c = 46) d -> known_c10_long d = false.
Proof.
  intros Hd. destruct (known_c10_long d) eqn:E; [|reflexivity]. exfalso.
  assert (Ha : Forall (fun c => c < 128) d).
  { eapply Forall_impl; [|exact Hd]. intros c [Hc | ->]; [unfold is_digit in Hc|]; lia. }
  destruct (class_has_hyphen d Ha E) as [H45 _]. rewrite Forall_forall in Hd.
  destruct (Hd 45 H45) as [Hc|Hc]; [vm_compute in Hc|]; discriminate.
Qed.

Lemma ipv4_display_not_long a : a < 4294967296 -> known_c10_long (ipv4_display a) = false.
Proof. intros Ha. apply digits_not_long. exact (proj1 (ipv4_display_digits a Ha)). Qed.

Lemma split1_len sep l : forall h t, Uts46.split1 sep l = (h, t) ->
  (length h <= length l)%nat /\ Forall (fun x => (length x <= length l)%nat) t.
Proof.
  induction l as [|x r IH]; intros h t H; cbn [Uts46.split1] in H.
  - inversion H; subst. split; [lia|constructor].
  - destruct (Uts46.split1 sep r) as [h0 t0] eqn:E. destruct (IH h0 t0 eq_refl) as [I1 I2].
    assert (I3 : Forall (fun x0 => (length x0 <= length (x :: r))%nat) t0).
    { eapply Forall_impl; [|exact I2]. cbn [length]. intros; lia. }
    destruct (x =? sep); inversion H; subst; cbn [length].
    + split; [lia|]. constructor; [lia|exact I3].
    + split; [lia|exact I3].
Qed.

(* a short text is outside the class (a member has more than 2004 characters) *)
Lemma short_not_long d : (length d <= 2004)%nat -> known_c10_long d = false.
Proof.
  intros Hlen. destruct (known_c10_long d) eqn:E; [|reflexivity]. exfalso.
  unfold known_c10_long, Idna_C10b_Long.Known_C10_long in E. apply existsb_exists in E. destruct E as (l & Hin & Hl).
  unfold Uts46.split_on in Hin. destruct (Uts46.split1 Uts46.DOT d) as [h t] eqn:Es.
  destruct (split1_len _ _ _ _ Es) as [I1 I2].
  assert (Hll : (length l <= length d)%nat).
  { destruct Hin as [<-|Hin]; [exact I1|]. rewrite Forall_forall in I2. exact (I2 l Hin). }
  unfold Idna_C10b_Long.long_puny_label in Hl. apply andb_true_iff in Hl. destruct Hl as [_ Hl].
  unfold Uts46.PUNYCODE_DECODE_MAX_INPUT_LENGTH, Uts46.len in Hl.
  assert (T : T_IDNA_DECODE_MAX = 2000) by reflexivity. rewrite T in Hl. lia.
Qed.

(* IdnaOK with the fixed-point clause restricted to the outputs outside the class.  What the clause says INSIDE the
   class is known for the IDNA model and for the crate: every member of the class is rejected (C10_long_rejected) *)
Record IdnaOK2 (idna : list N -> option (list N)) : Prop := {
  idna2_out : forall bs d, idna bs = Some d -> Forall dom_char_ok d;
  idna2_fix : forall bs d, idna bs = Some d -> known_c10_long d = false -> idna d = Some d;
  idna2_v4 : forall a, a < 4294967296 -> idna (ipv4_display a) = Some (ipv4_display a)
}.

(* IdnaOK2 is the weaker hypothesis *)
Lemma IdnaOK_IdnaOK2 idna : IdnaOK idna -> IdnaOK2 idna.
Proof.
  intros OK. constructor.
  - exact (idna_out idna OK).
  - intros bs d H _. exact (idna_fix idna OK bs d H).
  - exact (idna_v4 idna OK).
Qed.

(* the oracle that refuses the answers inside the class *)
Definition cap (idna : list N -> option (list N)) (bs : list N) : option (list N) :=
  match idna bs with
  | Some d => if known_c10_long d then None else Some d
  | None => None
  end.

Lemma cap_some idna bs d : cap idna bs = Some d <-> idna bs = Some d /\ known_c10_long d = false.
Proof.
  unfold cap. destruct (idna bs) as [x|]; [|split; [discriminate | intros [H _]; discriminate]].
  destruct (known_c10_long x) eqn:E; split.
  - discriminate.
  - intros [H K]. inversion H; subst. congruence.
  - intros H. inversion H; subst. split; [reflexivity|exact E].
  - intros [H _]. exact H.
Qed.

Lemma cap_none idna bs : cap idna bs = None <->
  idna bs = None \/ exists d, idna bs = Some d /\ known_c10_long d = true.
Proof.
  unfold cap. destruct (idna bs) as [x|]; [|split; [left; reflexivity | reflexivity]].
  destruct (known_c10_long x) eqn:E; split; try discriminate.
  - intros _. right. exists x. split; [reflexivity|exact E].
  - reflexivity.
  - intros [H|(d & H & K)]; [discriminate|]. inversion H; subst. congruence.
Qed.

(* capping twice is capping once *)
Lemma cap_idem idna bs : cap (cap idna) bs = cap idna bs.
Proof.
  unfold cap. destruct (idna bs) as [x|]; [|reflexivity]. destruct (known_c10_long x) eqn:E; [reflexivity|].
  rewrite E. reflexivity.
Qed.

(* the main reduction: every theorem relative to IdnaOK holds for the capped oracle under IdnaOK2 *)
Theorem IdnaOK2_cap idna : IdnaOK2 idna -> IdnaOK (cap idna).
Proof.
  intros OK. constructor.
  - intros bs d H. apply cap_some in H. destruct H as [H _]. exact (idna2_out idna OK bs d H).
  - intros bs d H. apply cap_some in H. destruct H as [H K]. apply cap_some. split; [|exact K].
    exact (idna2_fix idna OK bs d H K).
  - intros a Ha. apply cap_some. split; [exact (idna2_v4 idna OK a Ha) | exact (ipv4_display_not_long a Ha)].
Qed.

(* the capped oracle of an IdnaOK2 oracle is again IdnaOK2 (through IdnaOK, the stronger record) *)
Lemma IdnaOK2_cap2 idna : IdnaOK2 idna -> IdnaOK2 (cap idna).
Proof. intros OK. exact (IdnaOK_IdnaOK2 _ (IdnaOK2_cap idna OK)). Qed.

(* the oracle's answer for the percent-decoded bytes of a non-bracketed input is inside the class *)
Definition host_in_class (idna : list N -> option (list N)) (input : list N) : bool :=
  negb (starts_with 91 input)
  && match idna (decode (utf8_encode input)) with Some d => known_c10_long d | None => false end.

Section Agree.
Variable idna : list N -> option (list N).

Theorem cap_agree_x input : host_in_class idna input = false ->
  host_parse_x (cap idna) input = host_parse_x idna input.
Proof.
  unfold host_in_class, host_parse_x, cap. destruct (starts_with 91 input); [reflexivity|]. cbn [negb andb].
  destruct (idna (decode (utf8_encode input))) as [d|]; [|reflexivity]. intros ->. reflexivity.
Qed.

Theorem cap_class_x input : host_in_class idna input = true -> host_parse_x (cap idna) input = XErr IdnaError.
Proof.
  unfold host_in_class, host_parse_x, cap. destruct (starts_with 91 input); [discriminate|]. cbn [negb andb].
  destruct (idna (decode (utf8_encode input))) as [d|]; [|discriminate]. intros ->. reflexivity.
Qed.

Theorem cap_agree input : host_in_class idna input = false -> host_parse (cap idna) input = host_parse idna input.
Proof. intros H. unfold host_parse. rewrite (cap_agree_x input H). reflexivity. Qed.

Theorem cap_class input : host_in_class idna input = true -> host_parse (cap idna) input = Err IdnaError.
Proof. intros H. unfold host_parse. rewrite (cap_class_x input H). reflexivity. Qed.

(* the capped run is the same run, or stops with IdnaError *)
Theorem cap_dichotomy input :
  host_parse (cap idna) input = host_parse idna input \/ host_parse (cap idna) input = Err IdnaError.
Proof.
  destruct (host_in_class idna input) eqn:E; [right; exact (cap_class input E) | left; exact (cap_agree input E)].
Qed.

(* every success of the capped run is the same success of the run with the oracle itself *)
Theorem cap_refines input h : host_parse (cap idna) input = Ok h -> host_parse idna input = Ok h.
Proof.
  intros H. destruct (host_in_class idna input) eqn:E.
  - rewrite (cap_class input E) in H. discriminate.
  - rewrite (cap_agree input E) in H. exact H.
Qed.

(* result-level form for domains: a domain outside the class is returned by the capped run as well *)
Theorem cap_domain input d : host_parse idna input = Ok (HDomain d) -> known_c10_long d = false ->
  host_parse (cap idna) input = Ok (HDomain d).
Proof.
  intros H K. rewrite cap_agree; [exact H|]. pose proof (host_parse_ok_x _ _ _ H) as Hx.
  destruct (parse_domain idna input d Hx) as (Hi & _). unfold host_in_class. rewrite Hi, K. apply andb_false_r.
Qed.

(* what a witness of the finding amounts to: the oracle answers a non-bracketed input inside the class and refuses its
   own answer *)
Theorem class_witness input d : starts_with 91 input = false -> idna (decode (utf8_encode input)) = Some d ->
  known_c10_long d = true -> ends_in_a_number d = false ->
  starts_with 91 d = false -> idna (decode (utf8_encode d)) = None ->
  host_parse idna input = Ok (HDomain d) /\ host_parse idna (host_display (HDomain d)) = Err IdnaError
  /\ host_in_class idna input = true /\ host_parse (cap idna) input = Err IdnaError.
Proof.
  intros Hs Hi K He Hs' Hi'.
  assert (C : host_in_class idna input = true) by (unfold host_in_class; rewrite Hs, Hi, K; reflexivity).
  split; [|split; [|exact (conj C (cap_class input C))]].
  - unfold host_parse, host_parse_x. rewrite Hs, Hi, He. destruct d; [discriminate K | reflexivity].
  - cbn [host_display]. unfold host_parse, host_parse_x. rewrite Hs', Hi'. reflexivity.
Qed.

(* bracketed inputs never reach the oracle *)
Theorem cap_bracket input : starts_with 91 input = true -> host_parse (cap idna) input = host_parse idna input.
Proof. intros H. apply cap_agree. unfold host_in_class. rewrite H. reflexivity. Qed.
End Agree.

(* a text that parse_ipv4addr accepts has no '-' (a member of the class has one), so an Ipv4 result of Host::parse
   is a result of the capped run as well *)
Lemma number_no_hyphen p v : parse_ipv4number p = Some v -> ~ In 45 p.
Proof.
  unfold parse_ipv4number. destruct p as [|c0 p']; [discriminate|].
  set (pr := match p' with
             | c1 :: rest => if (c0 =? 48) && ((c1 =? 120) || (c1 =? 88)) then (rest, 16)
                             else if c0 =? 48 then (c1 :: rest, 8) else (c0 :: p', 10)
             | [] => (c0 :: p', 10) end).
  assert (Hpr : forall c, In c (c0 :: p') -> c = 48 \/ c = 120 \/ c = 88 \/ In c (fst pr)).
  { intros c Hc. subst pr. destruct p' as [|c1 rest].
    - right. right. right. exact Hc.
    - destruct ((c0 =? 48) && ((c1 =? 120) || (c1 =? 88))) eqn:E1.
      + cbn [fst]. destruct Hc as [<-|[<-|Hc]]; [left; lia | right; lia | right; right; right; exact Hc].
      + destruct (c0 =? 48) eqn:E2; cbn [fst].
        * destruct Hc as [<-|Hc]; [left; lia | right; right; right; exact Hc].
        * right. right. right. exact Hc. }
  change (match c0 :: p' with
          | c2 :: c1 :: rest => if (c2 =? 48) && ((c1 =? 120) || (c1 =? 88)) then (rest, 16)
                                else if c2 =? 48 then (c1 :: rest, 8) else (c0 :: p', 10)
          | _ => (c0 :: p', 10) end) with pr.
  destruct pr as [input1 r]. cbn [fst] in Hpr. destruct input1 as [|x xs].
  - intros _ Hin. destruct (Hpr 45 Hin) as [H|[H|[H|[]]]]; discriminate.
  - destruct (negb (if r =? 8 then forallb is_octal_digit (x :: xs)
                    else if r =? 10 then forallb is_digit (x :: xs) else forallb is_hex_digit (x :: xs))) eqn:Ev;
      [discriminate|]. intros _ Hin. apply negb_false_iff in Ev.
    destruct (Hpr 45 Hin) as [H|[H|[H|H]]]; try discriminate.
    assert (F : forall f : N -> bool, f 45 = false -> forallb f (x :: xs) = true -> False).
    { intros f H45 Hf. rewrite forallb_forall in Hf. specialize (Hf 45 H). congruence. }
    destruct (r =? 8); [exact (F _ eq_refl Ev)|]. destruct (r =? 10); [exact (F _ eq_refl Ev) | exact (F _ eq_refl Ev)].
Qed.

Lemma numbers_no_hyphen parts : forall ns, ipv4_numbers parts = Some ns -> Forall (fun p => ~ In 45 p) parts.
Proof.
  induction parts as [|p r IH]; intros ns H; [constructor|]. cbn [ipv4_numbers] in H.
  destruct (parse_ipv4number p) as [[n|]|] eqn:E; try discriminate.
  destruct (ipv4_numbers r) as [l|] eqn:Er; [|discriminate].
  constructor; [exact (number_no_hyphen p _ E) | exact (IH l eq_refl)].
Qed.

Lemma split_dot_in c s : c <> 46 -> In c s -> forall h t, split_dot s = (h, t) -> In c h \/ exists p, In p t /\ In c p.
Proof.
  intros Hc. induction s as [|x r IH]; intros Hin h t H; [destruct Hin|].
  cbn [split_dot] in H. destruct (split_dot r) as [h0 t0] eqn:E.
  destruct (x =? 46) eqn:Ex; inversion H; subst.
  - destruct Hin as [->|Hin]; [apply N.eqb_eq in Ex; congruence|].
    right. destruct (IH Hin h0 t0 eq_refl) as [I|(p & Hp & Hcp)].
    + exists h0. split; [left; reflexivity|exact I].
    + exists p. split; [right; exact Hp|exact Hcp].
  - destruct Hin as [->|Hin]; [left; left; reflexivity|].
    destruct (IH Hin h0 t eq_refl) as [I|I]; [left; right; exact I | right; exact I].
Qed.

Lemma split_dot_list_in c s : c <> 46 -> In c s -> exists p, In p (split_dot_list s) /\ In c p.
Proof.
  intros Hc Hin. unfold split_dot_list. destruct (split_dot s) as [h t] eqn:E.
  destruct (split_dot_in c s Hc Hin h t E) as [I|(p & Hp & Hcp)].
  - exists h. split; [left; reflexivity|exact I].
  - exists p. split; [right; exact Hp|exact Hcp].
Qed.

Theorem ipv4addr_no_hyphen s a : parse_ipv4addr s = XOk a -> ~ In 45 s.
Proof.
  intros H Hin. destruct (split_dot_list_in 45 s ltac:(discriminate) Hin) as (p & Hp & Hcp).
  unfold parse_ipv4addr in H.
  set (parts := match rev (split_dot_list s) with [] :: r => rev r | _ => split_dot_list s end) in H.
  assert (Hp' : In p parts).
  { subst parts. destruct (rev (split_dot_list s)) as [|l0 r0] eqn:Er; [exact Hp|].
    destruct l0 as [|y ys]; [|exact Hp].
    assert (E : split_dot_list s = rev r0 ++ [[]]).
    { rewrite <- (rev_involutive (split_dot_list s)), Er. reflexivity. }
    rewrite E in Hp. apply in_app_or in Hp. destruct Hp as [Hp|[<-|[]]]; [exact Hp|destruct Hcp]. }
  destruct (4 <? N.of_nat (length parts)); [discriminate|].
  destruct (ipv4_numbers parts) as [ns|] eqn:En; [|discriminate].
  pose proof (numbers_no_hyphen parts ns En) as F. rewrite Forall_forall in F. exact (F p Hp' Hcp).
Qed.

Theorem cap_ip idna input h : IdnaOK2 idna -> host_parse idna input = Ok h ->
  match h with HDomain _ => False | _ => True end -> host_parse (cap idna) input = Ok h.
Proof.
  intros OK H Hk. rewrite cap_agree; [exact H|]. unfold host_in_class.
  pose proof (host_parse_x_cases idna input h (host_parse_ok_x _ _ _ H)) as C. destruct h as [d|a|ps]; [destruct Hk| |].
  - destruct C as (dom & Ei & E). rewrite Ei. destruct (known_c10_long dom) eqn:K; [exfalso | apply andb_false_r].
    assert (Ha : Forall (fun x => x < 128) dom).
    { eapply Forall_impl; [|exact (idna2_out idna OK _ _ Ei)]. intros x [Hx1 _]. exact Hx1. }
    exact (ipv4addr_no_hyphen _ _ E (proj1 (class_has_hyphen _ Ha K))).
  - rewrite (proj1 C). reflexivity.
Qed.

(* every success of Host::parse whose display text is outside the class is a success of the capped run *)
Theorem cap_result idna input h : IdnaOK2 idna -> host_parse idna input = Ok h ->
  known_c10_long (host_display h) = false -> host_parse (cap idna) input = Ok h.
Proof.
  intros OK H K. destruct h as [d|a|ps].
  - exact (cap_domain idna input d H K).
  - exact (cap_ip idna input _ OK H I).
  - exact (cap_ip idna input _ OK H I).
Qed.

(* C09's display round trip for Host::parse with the oracle ITSELF, outside the class *)
Theorem special_display_rt2 idna input h : IdnaOK2 idna -> host_parse idna input = Ok h ->
  known_c10_long (host_display h) = false -> host_parse idna (host_display h) = Ok h.
Proof.
  intros OK H K. apply cap_refines.
  pose proof (cap_result idna input h OK H K) as Hc.
  exact (x_ok_host_parse _ _ _ (special_display_rt (cap idna) (IdnaOK2_cap idna OK) input h (host_parse_ok_x _ _ _ Hc))).
Qed.

(* the form clause of C09_domain needs the first clause only *)
Theorem domain_form2 idna input d : IdnaOK2 idna -> host_parse idna input = Ok (HDomain d) ->
  Forall (fun c => c < 128 /\ is_upper c = false /\ Spec.WhatwgHost.Spec.forbidden_domain_code_point c = false) d.
Proof.
  intros OK H. destruct (parse_domain idna input d (host_parse_ok_x _ _ _ H)) as (H1 & _).
  pose proof (idna2_out idna OK _ d H1) as Hout. eapply Forall_impl; [|exact Hout].
  intros c Hc. destruct (dom_char_facts c Hc) as (? & ? & ? & _). tauto.
Qed.

(* a stand-in oracle with the defect of the crate: the identity on clean ASCII text (idna_clean), except that the
   input "x" is answered with the label xn--aaa...a (2001 a's: in the class) and every text in the class is refused *)
Definition W_long_label : list N := [120; 110; 45; 45] ++ repeat 97 2001.
Definition idna_long (bs : list N) : option (list N) :=
  if list_eqb bs [120] then Some W_long_label
  else if known_c10_long bs then None else idna_clean bs.

Lemma W_long_facts :
  known_c10_long W_long_label = true /\ idna_long [120] = Some W_long_label /\ idna_long W_long_label = None
  /\ length W_long_label = 2005%nat.
Proof. vm_compute. repeat split; reflexivity. Qed.

Lemma idna_clean_id bs d : idna_clean bs = Some d -> d = bs.
Proof. unfold idna_clean. destruct (forallb clean_char bs); intros H; inversion H; reflexivity. Qed.

Lemma W_long_clean : Forall dom_char_ok W_long_label.
Proof.
  unfold W_long_label. apply Forall_app. split.
  - repeat constructor; vm_compute; reflexivity.
  - apply Forall_forall. intros c Hc. apply repeat_spec in Hc. subst c. split; vm_compute; reflexivity.
Qed.

Theorem idna_long_ok2 : IdnaOK2 idna_long.
Proof.
  constructor.
  - intros bs d H. unfold idna_long in H. destruct (list_eqb bs [120]).
    + inversion H; subst. exact W_long_clean.
    + destruct (known_c10_long bs); [discriminate|]. exact (idna_out idna_clean idna_clean_ok bs d H).
  - intros bs d H K. unfold idna_long in H. destruct (list_eqb bs [120]) eqn:E1.
    + inversion H; subst. rewrite (proj1 W_long_facts) in K. discriminate.
    + destruct (known_c10_long bs) eqn:E2; [discriminate|]. pose proof (idna_clean_id bs d H) as ->.
      unfold idna_long. rewrite E1, E2. exact H.
  - intros a Ha. unfold idna_long.
    assert (E1 : list_eqb (ipv4_display a) [120] = false).
    { destruct (list_eqb (ipv4_display a) [120]) eqn:E; [|reflexivity]. apply list_eqb_spec in E.
      destruct (ipv4_display_digits a Ha) as (Hd & _). rewrite E in Hd. inversion Hd as [|? ? Hc _]; subst.
      destruct Hc as [Hc|Hc]; [vm_compute in Hc|]; discriminate. }
    rewrite E1, (ipv4_display_not_long a Ha). exact (idna_v4 idna_clean idna_clean_ok a Ha).
Qed.

(* for it IdnaOK is false, and so is the display round trip of C09: Host::parse "x" = Domain <long label>, and
   Host::parse of the display text of that host is Err IdnaError.  The capped run refuses "x". *)
Theorem long_refuted :
  IdnaOK2 idna_long /\ ~ IdnaOK idna_long
  /\ host_parse idna_long [120] = Ok (HDomain W_long_label)
  /\ host_parse idna_long (host_display (HDomain W_long_label)) = Err IdnaError
  /\ host_in_class idna_long [120] = true
  /\ host_parse (cap idna_long) [120] = Err IdnaError.
Proof.
  destruct W_long_facts as (K & H1 & H2 & _). split; [exact idna_long_ok2|]. split.
  - intros OK. rewrite (idna_fix idna_long OK [120] W_long_label H1) in H2. discriminate.
  - apply class_witness; try assumption; vm_compute; reflexivity.
Qed.

(* the unrestricted domain clause of C09_display_rt is false under IdnaOK2 *)
Theorem display_rt_needs_class :
  ~ (forall idna, IdnaOK2 idna -> forall input h, host_parse idna input = Ok h -> host_parse idna (host_display h) = Ok h).
Proof.
  intros H. destruct long_refuted as (OK & _ & H1 & H2 & _). rewrite (H idna_long OK [120] _ H1) in H2. discriminate.
Qed.

(* the premises of the IdnaOK2 statements (a host outside the class, a clean run) are met: the stand-in oracle outside the class *)
Example long_premises_hold :
  host_parse idna_long [97; 46; 98] = Ok (HDomain [97; 46; 98]) /\ known_c10_long (host_display (HDomain [97; 46; 98])) = false
  /\ host_in_class idna_long [97; 46; 98] = false
  /\ host_parse (cap idna_long) [97; 46; 98] = Ok (HDomain [97; 46; 98])
  /\ host_parse idna_long [49; 46; 50] = Ok (HIpv4 16777218).
Proof. vm_compute. repeat split; reflexivity. Qed.
