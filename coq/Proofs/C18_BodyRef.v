(* Proofs/C18_BodyRef.v - what decode_without_base64 writes when the sink never fails: the body up to
   the first '#', ASCII tab / newlines dropped, "%XY" with two hex digits contiguous in the text
   replaced by the byte; the fragment is what follows the '#'.  This is the "fault-free output" the
   sink clause of C18 speaks about (Properties/C18.v C18_body_output). *)
From RU Require Import Base.Prelude Gen.Tables Model.Base64 Proofs.C18_Table Proofs.C18_Machine Proofs.C18_Body.

Fixpoint body_ref (bytes : list N) : list N * option (list N) :=
  match bytes with
  | [] => ([], None)
  | b :: r =>
      if b =? 35 then ([], Some r)
      else if (b =? 9) || (b =? 10) || (b =? 13) then body_ref r
      else
        let keep := let (o, f) := body_ref r in (b :: o, f) in
        if b =? 37 then
          match r with
          | h :: l :: r' =>
              match hex_val h, hex_val l with
              | Some hv, Some lv => let (o, f) := body_ref r' in (hv * 16 + lv :: o, f)
              | _, _ => keep
              end
          | _ => keep
          end
        else keep
  end.

Lemma body_ref_pct rest :
  body_ref (37 :: rest) =
  match pct_value rest with
  | Some v => (v :: fst (body_ref (skipn 2 rest)), snd (body_ref (skipn 2 rest)))
  | None => (37 :: fst (body_ref rest), snd (body_ref rest))
  end.
Proof.
  cbn [body_ref]. change (37 =? 35) with false. change ((37 =? 9) || (37 =? 10) || (37 =? 13)) with false.
  change (37 =? 37) with true. cbv iota.
  destruct rest as [|h [|l r]]; cbn [pct_value skipn].
  - reflexivity.
  - destruct (body_ref [h]). reflexivity.
  - destruct (hex_val h); [destruct (hex_val l)|];
      [destruct (body_ref r) | destruct (body_ref (h :: l :: r)) ..]; reflexivity.
Qed.

Lemma body_ref_special b rest : memb b T_BODY_SPECIAL = true -> (b =? 37) = false -> (b =? 35) = false ->
  body_ref (b :: rest) = body_ref rest.
Proof.
  rewrite body_special_list. intros Hsp H37 H35. cbn [body_ref]. rewrite H35.
  replace ((b =? 9) || (b =? 10) || (b =? 13)) with true by lia. reflexivity.
Qed.

Lemma body_ref_plain b rest : memb b T_BODY_SPECIAL = false ->
  body_ref (b :: rest) = (b :: fst (body_ref rest), snd (body_ref rest)).
Proof.
  rewrite body_special_list. intros Hsp. cbn [body_ref].
  replace (b =? 35) with false by lia. replace ((b =? 9) || (b =? 10) || (b =? 13)) with false by lia.
  replace (b =? 37) with false by lia. destruct (body_ref rest). reflexivity.
Qed.

Definition hex_prefix (k : nat) (rest : list N) : Prop :=
  (k <= length rest)%nat /\ Forall (fun b => hex_val b <> None) (firstn k rest).

Lemma hex_not_special b : hex_val b <> None -> memb b T_BODY_SPECIAL = false.
Proof.
  intros H. rewrite body_special_list. unfold hex_val, is_digit in H.
  destruct ((48 <=? b) && (b <=? 57)) eqn:E1; [lia|].
  destruct ((65 <=? b) && (b <=? 70)) eqn:E2; [lia|].
  destruct ((97 <=? b) && (b <=? 102)) eqn:E3; [lia|]. congruence.
Qed.

Lemma pct_value_hex rest v : pct_value rest = Some v -> hex_prefix 2 rest.
Proof.
  destruct rest as [|h [|l r]]; try discriminate. cbn [pct_value].
  destruct (hex_val h) eqn:Hh; [|discriminate]. destruct (hex_val l) eqn:Hl; [|discriminate]. intros _.
  split; [cbn [length]; lia|]. cbn [firstn]. repeat constructor; congruence.
Qed.

Lemma slice_pre pre rest ss :
  (ss <= length pre)%nat -> slice (pre ++ rest) ss (length pre) = skipn ss pre.
Proof.
  intros H. unfold slice. rewrite skipn_app. replace (ss - length pre)%nat with 0%nat by lia.
  cbn [skipn]. rewrite firstn_app.
  assert (HL : length (skipn ss pre) = (length pre - ss)%nat) by apply skipn_length.
  rewrite HL, Nat.sub_diag. cbn [firstn]. rewrite app_nil_r.
  apply firstn_all2. rewrite HL. lia.
Qed.

(* the pending slice bytes[slice_start..i], as a chunk if it is not empty *)
Lemma concat_pending pre rest ss cs : (ss <= length pre)%nat ->
  concat ((if (ss <? length pre)%nat then [slice (pre ++ rest) ss (length pre)] else []) ++ cs)
  = skipn ss pre ++ concat cs.
Proof.
  intros H. destruct (ss <? length pre)%nat eqn:E.
  - cbn [app concat]. rewrite slice_pre by exact H. reflexivity.
  - apply Nat.ltb_ge in E. rewrite skipn_all2 by exact E. reflexivity.
Qed.

(* pre has been consumed; slice_start is either inside pre, with bytes[slice_start..] pending, or k
   bytes ahead, these being the hex digits of an escape just decoded.  What has been written and will
   be written is then the pending bytes followed by the reference output for the rest. *)
Lemma pdwo_loop_ref : forall rest pre ss k,
  hex_prefix k rest ->
  match k with O => (ss <= length pre)%nat | S _ => ss = (length pre + k)%nat end ->
  concat (fst (pdwo_loop (pre ++ rest) (length pre) ss rest)) = skipn ss pre ++ fst (body_ref (skipn k rest))
  /\ snd (pdwo_loop (pre ++ rest) (length pre) ss rest) = Some (snd (body_ref (skipn k rest))).
Proof.
  induction rest as [|byte rest' IH]; intros pre ss k Hhex Hss.
  - destruct Hhex as [Hk _]. cbn [length] in Hk. assert (k = 0%nat) as -> by lia.
    cbn [pdwo_loop skipn body_ref fst snd]. rewrite app_nil_r.
    replace (length pre <? ss)%nat with false by (symmetry; apply Nat.ltb_ge; exact Hss).
    cbn [fst snd concat]. rewrite !app_nil_r. split; reflexivity.
  - (* the same statement for the next byte, with byte moved into pre *)
    assert (Hnext : forall ss' k', hex_prefix k' rest' ->
              match k' with O => (ss' <= S (length pre))%nat | S _ => ss' = (S (length pre) + k')%nat end ->
              concat (fst (pdwo_loop (pre ++ byte :: rest') (S (length pre)) ss' rest'))
              = skipn ss' (pre ++ [byte]) ++ fst (body_ref (skipn k' rest'))
              /\ snd (pdwo_loop (pre ++ byte :: rest') (S (length pre)) ss' rest') = Some (snd (body_ref (skipn k' rest')))).
    { intros ss' k' Hh Hs. specialize (IH (pre ++ [byte]) ss' k' Hh).
      rewrite <- app_assoc, app_length, Nat.add_1_r in IH. exact (IH Hs). }
    assert (Hfull : forall n, (length pre < n)%nat -> skipn n (pre ++ [byte]) = [])
      by (intros n Hn; apply skipn_all2; rewrite app_length, Nat.add_1_r; exact Hn).
    rewrite pdwo_loop_cons. cbv zeta.
    destruct (memb byte T_BODY_SPECIAL) eqn:Hsp.
    + (* a special byte is not a hex digit: slice_start is not ahead *)
      destruct k as [|k].
      2:{ destruct Hhex as [_ Hhex]. cbn [firstn] in Hhex. inversion Hhex as [|? ? Hb _]; subst.
          rewrite (hex_not_special byte Hb) in Hsp. discriminate. }
      cbv iota in Hss. cbn [skipn].
      assert (Hss1 : (if (ss <? length pre)%nat then length pre else ss) = length pre)
        by (destruct (ss <? length pre)%nat eqn:E; [reflexivity | apply Nat.ltb_ge in E; lia]).
      destruct (byte =? 37) eqn:H37; [apply N.eqb_eq in H37; subst byte; rewrite body_ref_pct;
                                      destruct (pct_value rest') as [v|] eqn:Ev
                                     | destruct (byte =? 35) eqn:H35]; cbn [fst snd].
      * destruct (Hnext (length pre + 3)%nat 2%nat) as [I1 I2]; [exact (pct_value_hex _ _ Ev) | cbv iota; lia |].
        rewrite concat_pending by exact Hss. cbn [concat app]. rewrite I1, I2, Hfull by lia. split; reflexivity.
      * rewrite Hss1. destruct (Hnext (length pre) 0%nat) as [I1 I2]; [split; [lia | constructor] | cbv iota; lia |].
        rewrite concat_pending by exact Hss. rewrite I1, I2, skipn_app, skipn_all, Nat.sub_diag. split; reflexivity.
      * apply N.eqb_eq in H35. subst byte. cbn [body_ref fst snd]. change (35 =? 35) with true. cbv iota. cbn [fst snd].
        pose proof (concat_pending pre (35 :: rest') ss [] Hss) as Hc. rewrite app_nil_r in Hc. rewrite Hc.
        split; [reflexivity|].
        do 2 f_equal. rewrite skipn_app, skipn_all2 by lia.
        replace (length pre + 1 - length pre)%nat with 1%nat by lia. reflexivity.
      * rewrite (body_ref_special byte rest' Hsp H37 H35).
        destruct (Hnext (length pre + 1)%nat 0%nat) as [I1 I2]; [split; [lia | constructor] | cbv iota; lia |].
        rewrite concat_pending by exact Hss. rewrite I1, I2, Hfull by lia. split; reflexivity.
    + (* an ordinary byte: pending grows, or one hex digit of the escape is stepped over *)
      destruct k as [|k]; cbv iota in Hss; cbn [skipn].
      * rewrite (body_ref_plain byte rest' Hsp). cbn [fst snd].
        destruct (Hnext ss 0%nat) as [I1 I2]; [split; [lia | constructor] | cbv iota; lia |].
        rewrite I1, I2, skipn_app. replace (ss - length pre)%nat with 0%nat by lia.
        cbn [skipn]. rewrite <- app_assoc. split; reflexivity.
      * destruct Hhex as [Hk Hhex]. cbn [length firstn] in Hk, Hhex. apply Forall_inv_tail in Hhex.
        destruct (Hnext ss k) as [I1 I2]; [split; [lia | exact Hhex] | destruct k; cbv iota; lia |].
        rewrite I1, I2, Hfull, (@skipn_all2 _ ss pre) by lia. split; reflexivity.
Qed.

Theorem dwo_output_is_ref body :
  concat (fst (pdwo body)) = fst (body_ref body) /\ snd (pdwo body) = Some (snd (body_ref body)).
Proof.
  exact (pdwo_loop_ref body [] 0%nat 0%nat (conj (Nat.le_0_l _) (Forall_nil _)) (Nat.le_0_l _)).
Qed.

(* against the never-failing recording sink *)
Theorem dwo_fault_free body :
  let (s, r) := decode_without_base64 kwrite (ksink_new None) body in
  concat (ks_out s) = fst (body_ref body) /\ r = BodyOk (snd (body_ref body)).
Proof.
  rewrite dwo_exec. unfold execb, ksink_new. rewrite attempt_kwrite_never.
  destruct (dwo_output_is_ref body) as [H1 H2]. cbn [ks_out app]. rewrite H1, H2. split; reflexivity.
Qed.

(* base64 bodies: the Infra decode of the percent-decoded body *)
From RU Require Import Spec.Infra Proofs.C18_Spec.

Theorem dwb_fault_free body :
  let (s, r) := decode_with_base64 kwrite (ksink_new None) body in
  match forgiving_base64_decode (fst (body_ref body)) with
  | Some v => concat (ks_out s) = v /\ r = BodyOk (snd (body_ref body))
  | None => exists e, r = BodyErr (InvalidBase64 e)
  end.
Proof.
  destruct (dwb_is_run kwrite (ksink_new None) body) as [f [Hf H]]. rewrite H. clear H.
  destruct (dwo_output_is_ref body) as [H1 H2]. rewrite H2 in Hf. inversion Hf; subst f. rewrite H1.
  set (input := fst (body_ref body)).
  rewrite run_exec. unfold exec, ksink_new. rewrite attempt_kwrite_never. cbn [app ks_out].
  pose proof (decode_to_vec_is_infra input) as HI. rewrite decode_to_vec_prun in HI.
  destruct (snd (prun input)) as [e|]; cbn [option_map b64_body_result]; rewrite <- HI.
  - exists e. reflexivity.
  - split; reflexivity.
Qed.
