(* Proofs/C13_DecEnc.v - decode (encode s) = s through the u32 model, outside the class Known_C13.
   The u32 encoder succeeded, so every delta fits in 32 bits; known_c13 s = false, so no delta that fits
   has  di + delta  above u32::MAX; hence the walk w_outer of Proofs/C13_RtB.v succeeds, the checked
   decoder reads the output back (b_outer_coupled) and the model's decoder follows it (decode_complete). *)
From RU Require Import Base.Prelude Base.U32_c13 Model.Punycode Spec.Rfc3492
  Proofs.C13_Bounds Proofs.C13_Enc Proofs.C13_Dec Proofs.C13_Known Proofs.C13_Vli Proofs.C13_Rt
  Proofs.C13_DecB Proofs.C13_RtB.

(* k_inner / k_outer, the instrumented walk of known_c13 (Spec/Rfc3492.v), one element unfolded *)
Lemma k_inner_cons c r n delta h di pos hit :
  k_inner (c :: r) n delta h di pos hit =
  if c =? n then
    k_inner r n 0 (h + 1) (pos + 1) (pos + 1)
      (hit || (((if c <? n then delta + 1 else delta) <=? u32_max) && (u32_max <? di + (if c <? n then delta + 1 else delta))))
  else k_inner r n (if c <? n then delta + 1 else delta) h di (if c <? n then pos + 1 else pos) hit.
Proof. reflexivity. Qed.

Lemma k_outer_S f input il n delta h di hit :
  k_outer (S f) input il n delta h di hit =
  if h <? il then
    match k_inner input (match s_min_ge n input with Some m => m | None => n end)
            (delta + ((match s_min_ge n input with Some m => m | None => n end) - n) * (h + 1)) h di 0 hit with
    | (delta, h, di, hit) => k_outer f input il ((match s_min_ge n input with Some m => m | None => n end) + 1) (delta + 1) h di hit
    end
  else hit.
Proof. reflexivity. Qed.

Lemma k_inner_true l : forall n d h di pos, snd (k_inner l n d h di pos true) = true.
Proof.
  induction l as [|c r IH]; intros n d h di pos; [reflexivity|].
  rewrite k_inner_cons. destruct (c =? n); [cbn [orb]|]; apply IH.
Qed.

Lemma k_outer_true fuel : forall input il n d h di, k_outer fuel input il n d h di true = true.
Proof.
  induction fuel as [|f IH]; intros input il n d h di.
  - cbn [k_outer]. destruct (h <? il); reflexivity.
  - rewrite k_outer_S. destruct (h <? il); [|reflexivity].
    pose proof (k_inner_true input (match s_min_ge n input with Some m => m | None => n end)
                  (d + ((match s_min_ge n input with Some m => m | None => n end) - n) * (h + 1)) h di 0) as HT.
    destruct (k_inner input _ _ h di 0 true) as [[[kd kh] kdi] khit]. cbn [snd] in HT. subst khit. apply IH.
Qed.

Lemma k_inner_proj l : forall n b d bias h di pos hit kd kh kdi khit sd sb sh so,
  k_inner l n d h di pos hit = (kd, kh, kdi, khit) -> s_enc_inner l n b d bias h = (sd, sb, sh, so) ->
  kd = sd /\ kh = sh.
Proof.
  induction l as [|c r IH]; intros n b d bias h di pos hit kd kh kdi khit sd sb sh so Hk Hs.
  - cbn [k_inner] in Hk. cbn [s_enc_inner] in Hs. inversion Hk. inversion Hs. subst. split; reflexivity.
  - rewrite k_inner_cons in Hk. rewrite s_enc_inner_cons in Hs. cbv zeta in Hs. destruct (c =? n).
    + destruct (s_enc_inner r n b 0 (s_adapt (if c <? n then d + 1 else d) (h + 1) (h =? b)) (h + 1))
        as [[[a1 b1] c1] o1] eqn:E.
      inversion Hs. subst. eapply IH; [exact Hk|exact E].
    + eapply IH; [exact Hk|exact Hs].
Qed.

(* the u32 encoder succeeded and the class flag stayed down: the walk succeeds *)
Lemma link_inner cfg l : forall m bl d bias h di pos st kd kh kdi,
  enc_inner cfg true l m bl d bias h = Ok st -> d <= U32_MAX ->
  k_inner l m d h di pos false = (kd, kh, kdi, false) ->
  w_inner l m d h di pos = Some (kd, kh, kdi).
Proof.
  induction l as [|c l IH]; intros m bl d bias h di pos st kd kh kdi He Hd Hk.
  - cbn [k_inner] in Hk. inversion Hk. reflexivity.
  - rewrite enc_inner_cons in He. rewrite k_inner_cons in Hk. rewrite w_inner_cons.
    destruct (c =? m) eqn:Ecm.
    + apply N.eqb_eq in Ecm. subst c. replace (m <? m) with false in * by lia.
      cbn [rbind] in He. rewrite enc_vli_fuel_ok in He. cbn [rbind] in He.
      rewrite adapt_ok in He by lia. cbn [rbind] in He.
      destruct (enc_inner cfg true l m bl 0 (s_adapt d (h + 1) (h =? bl)) (h + 1)) as [st'| |site] eqn:Er;
        cbn [rbind] in He; try discriminate.
      cbn [orb] in Hk.
      destruct (di + d <=? U32_MAX) eqn:Efit.
      * replace ((d <=? u32_max) && (u32_max <? di + d)) with false in Hk by (unfold u32_max, U32_MAX in *; lia).
        eapply IH; [exact Er|unfold U32_MAX; lia|exact Hk].
      * replace ((d <=? u32_max) && (u32_max <? di + d)) with true in Hk by (unfold u32_max, U32_MAX in *; lia).
        pose proof (k_inner_true l m 0 (h + 1) (pos + 1) (pos + 1)) as HT. rewrite Hk in HT. discriminate.
    + destruct (c <? m) eqn:Elt.
      * unfold caller_add, checked_add in He.
        destruct (d + 1 <=? U32_MAX) eqn:E1; cbn [of_checked rbind] in He; [|discriminate].
        eapply IH; [exact He|lia|exact Hk].
      * cbn [rbind] in He. eapply IH; [exact He|exact Hd|exact Hk].
Qed.

Lemma link_outer cfg input (HL : len input <= U32_MAX) fuel : forall cp delta bias h bl di o,
  enc_outer fuel cfg true input (len input) bl cp delta bias h = Ok o -> delta <= U32_MAX ->
  k_outer fuel input (len input) cp delta h di false = false ->
  w_outer fuel input (len input) cp delta h di = true.
Proof.
  induction fuel as [|f IH]; intros cp delta bias h bl di o He Hd Hk.
  - cbn [w_outer]. destruct (h <? len input); reflexivity.
  - rewrite enc_outer_S in He. rewrite k_outer_S in Hk. rewrite w_outer_S.
    destruct (h <? len input); [|reflexivity].
    rewrite min_ge_eq in He. destruct (s_min_ge cp input) as [m|] eqn:Em; [|discriminate].
    apply s_min_ge_some in Em. destruct Em as [Hin [Hle Hmin]].
    unfold caller_mul, checked_mul in He.
    destruct ((m - cp) * (h + 1) <=? U32_MAX) eqn:E1; cbn [of_checked rbind] in He; [|discriminate].
    unfold caller_add at 1, checked_add in He.
    destruct (delta + (m - cp) * (h + 1) <=? U32_MAX) eqn:E2; cbn [of_checked rbind] in He; [|discriminate].
    destruct (enc_inner cfg true input m bl (delta + (m - cp) * (h + 1)) bias h) as [st| |site] eqn:Ei;
      cbn [rbind] in He; try discriminate.
    destruct (enc_inner_ext cfg input m bl (delta + (m - cp) * (h + 1)) bias h) as [Hx|Hx];
      rewrite Ei in Hx; [discriminate|]. inversion Hx as [Hst]. clear Hx.
    destruct st as [[[d1 b1] h1] o1].
    destruct (k_inner input m (delta + (m - cp) * (h + 1)) h di 0 false) as [[[kd kh] kdi] khit] eqn:Ek.
    destruct khit; [rewrite k_outer_true in Hk; discriminate|].
    rewrite (link_inner cfg input m bl _ bias h di 0 _ kd kh kdi Ei ltac:(lia) Ek).
    destruct (k_inner_proj input m bl _ bias h di 0 false kd kh kdi false d1 b1 h1 o1 Ek (eq_sym Hst)) as [-> ->].
    symmetry in Hst. apply s_inner_facts in Hst. destruct Hst as [_ [_ Hd1]]. specialize (Hd1 Hin).
    unfold unchecked_add in He. replace (d1 + 1 <=? U32_MAX) with true in He by lia. cbn [rbind] in He.
    destruct (enc_outer f cfg true input (len input) bl (m + 1) (d1 + 1) b1 h1) as [o2| |site] eqn:Eo;
      cbn [rbind] in He; try discriminate.
    eapply IH; [exact Eo|lia|exact Hk].
Qed.

(* the public decoder follows a successful checked run *)
Lemma digit_u8_char d : d < 36 -> digit_u8 (s_digit_char d) = Some d.
Proof. intros H. rewrite digit_u8_rfc. apply s_digit_value_char. exact H. Qed.

Lemma decode_complete cfg p base rest out' :
  s_split p = (base, rest) -> forallb (fun c => c <? 128) base = true -> len base <= U32_MAX ->
  b_dec_loop digit_u8 rest false 0 1 s_base 0 s_initial_n s_initial_bias base = Some out' ->
  decode cfg p = Ok out'.
Proof.
  intros Hs Ha Hl Hb. pose proof (decode_with_checked cfg U8External p base rest Hs Hl) as H.
  cbn [inst_external inst_digit andb] in H. rewrite Ha, map_base_ext, Hb in H. exact H.
Qed.

(* decode (encode s) = s whenever the walk succeeds *)
Lemma dec_enc_of_walk cfg s p : usv_list s -> encode cfg s = Ok p ->
  w_outer (S (length s)) s (len s) s_initial_n 0 (cnt (fun c => c <? 128) s) 0 = true ->
  decode cfg p = Ok s.
Proof.
  intros Hu He Hw.
  assert (HL : len s <= U32_MAX).
  { unfold encode in He. unfold len. destruct (U32_MAX <? N.of_nat (length s)) eqn:EL; [discriminate|lia]. }
  destruct (encode_safe cfg s) as [E|E]; rewrite E in He; [discriminate|]. inversion He. subst p. clear He E.
  pose proof (cnt_le (fun c => c <? 128) s) as Hcb.
  apply (decode_complete cfg _ _ _ _ (split_s_encode s) (forallb_filter _ s)); [rewrite <- cnt_filter; lia|].
  apply (b_outer_coupled digit_u8 digit_u8_char);
    [exact (usv_list_usvb s Hu)|exact (coupled_init s)|exact (outer_fuel s)|unfold s_initial_bias; lia|exact HL|exact Hw].
Qed.

(* decode (encode s) = s outside the class Known_C13: there the walk succeeds (link_outer) *)
Theorem dec_enc_main : forall cfg s p, usv_list s -> encode cfg s = Ok p -> ~ Known_C13 s -> decode cfg p = Ok s.
Proof.
  intros cfg s p Hu He Hk. apply (dec_enc_of_walk cfg s p Hu He).
  assert (HL : len s <= U32_MAX).
  { unfold encode in He. unfold len. destruct (U32_MAX <? N.of_nat (length s)) eqn:EL; [discriminate|lia]. }
  assert (Hk' : known_c13 s = false) by (unfold Known_C13 in Hk; destruct (known_c13 s); [exfalso; apply Hk; reflexivity|reflexivity]).
  unfold known_c13 in Hk'. change (N.of_nat (length (filter (fun c => c <? 128) s))) with (len (filter (fun c => c <? 128) s)) in Hk'.
  rewrite <- cnt_filter in Hk'. change (N.of_nat (length s)) with (len s) in Hk'.
  unfold encode in He. replace (U32_MAX <? N.of_nat (length s)) with false in He by (unfold len in HL; lia).
  unfold encode_into in He. rewrite enc_basic_ok in He by (rewrite N.add_0_l; exact HL). rewrite !N.add_0_l in He.
  cbn [rbind] in He.
  destruct (enc_outer (S (length s)) cfg true s (len s) (cnt (fun c => c <? 128) s) INITIAL_N 0 INITIAL_BIAS
              (cnt (fun c => c <? 128) s)) as [o| |site] eqn:Eo; cbn [rbind] in He; try discriminate.
  eapply (link_outer cfg s HL); [exact Eo|unfold U32_MAX; lia|exact Hk'].
Qed.
