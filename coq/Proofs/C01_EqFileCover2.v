(* Proofs/C01_EqFileCover2.v - known_c01_v3: class 1 of known_c01_v2 without the two arms in which
   neither side reads a FILE base (Model/KnownC01.v k_file_narrow_v3; twin
   harness/src/known01.rs file_narrow):
     "file:" R against a file base, R starts with two '/' '\'          (Proofs/C01_EqFileTwo.v  class_file_two_good)
     scheme-less R that starts with two '/' '\' against a file base    (Proofs/C01_EqFileRel2.v class_file_rel2)
   each with R inside k_file_ok.  known_c01_v2 is the predicate of Proofs/C01_EqFileCover.v.  Here: known_c01_v2 = 0 -> known_c01_v3 = 0; coverage of known_c01_v3 = 0 by
   in_proved_class5 = in_proved_class4 + the two classes; the assembled statement (statement_all5). *)
From Coq Require Import ZifyBool ZifyN.
From RU Require Import Base.Prelude Base.Utf8 Model.HostT Model.UrlRecord Model.Parser Model.Host Model.KnownC01
  Spec.Whatwg Spec.WhatwgHostParse Proofs.C02_Parts Proofs.C09_Host Proofs.C01_EqRun Proofs.C01_EqApi
  Proofs.C01_EqRef Proofs.C01_EqSpSpec Proofs.C01_KnownExact Proofs.C01_Override Proofs.C01_EqAsm
  Proofs.C01_EqShape Proofs.C01_EqCover Proofs.C01_EqFileSpec Proofs.C01_EqFile Proofs.C01_EqFileHost
  Proofs.C01_EqFileAsm Proofs.C01_EqFileCover Proofs.C01_EqFileTwo Proofs.C01_EqFileRel2.

(* known_c01_v3 against known_c01_v2 and known_c01_v1 *)
Lemma narrow_v2_new base input : k_file_narrow_v2 base input = true -> k_file_narrow_v3 base input = true.
Proof.
  unfold k_file_narrow_v2, k_file_narrow_v3. cbv zeta.
  destruct (leading_scheme (cleaned input)) as [s|]; [|discriminate].
  destruct base as [b|]; [|exact (fun H => H)].
  intros H. apply andb_true_iff in H. destruct H as [H H3]. apply andb_true_iff in H. destruct H as [H1 H2].
  rewrite H1, H2, H3. reflexivity.
Qed.

Lemma known_split5 base input : known_c01_v3 base input = 0 ->
  known_c01_v1 base input = 0 \/ k_file_narrow_v3 base input = true.
Proof.
  unfold known_c01_v3. cbv zeta.
  destruct ((known_c01_v1 base input =? 1) && k_file_narrow_v3 base input) eqn:E.
  - intros _. right. apply andb_true_iff in E. exact (proj2 E).
  - intros H. left. exact H.
Qed.

(* known_c01_v3 is below known_c01_v2 (hence below known_c01_v1): whatever is outside known_c01_v2 is outside known_c01_v3 *)
Lemma known_v2_zero base input : known_c01_v2 base input = 0 -> known_c01_v3 base input = 0.
Proof.
  unfold known_c01_v2, known_c01_v3. cbv zeta.
  destruct (known_c01_v1 base input =? 1) eqn:E1; cbn [andb]; [|exact (fun H => H)].
  destruct (k_file_narrow_v2 base input) eqn:E2.
  - rewrite (narrow_v2_new base input E2). reflexivity.
  - intros H. apply N.eqb_eq in E1. rewrite E1 in H. discriminate H.
Qed.

Lemma known_v1_zero5 base input : known_c01_v1 base input = 0 -> known_c01_v3 base input = 0.
Proof. intros H. unfold known_c01_v3. cbv zeta. rewrite H. reflexivity. Qed.

(* the classes 2-4 are untouched *)
Lemma known_class_same5 base input : known_c01_v3 base input <> 0 -> known_c01_v3 base input = known_c01_v1 base input.
Proof.
  unfold known_c01_v3. cbv zeta. destruct ((known_c01_v1 base input =? 1) && k_file_narrow_v3 base input).
  - intros H. exfalso. apply H. reflexivity.
  - intros _. reflexivity.
Qed.

(* without a base the two predicates are equal *)
Lemma known_nobase_same input : known_c01_v3 None input = known_c01_v2 None input.
Proof.
  unfold known_c01_v3, known_c01_v2, k_file_narrow_v3, k_file_narrow_v2. cbv zeta.
  destruct (leading_scheme (cleaned input)); reflexivity.
Qed.

Definition rel2_class (sbase : option spec_url) (input : list N) : bool :=
  match sbase with Some sb => in_class_file_rel2 sb input | None => false end.

Definition in_proved_class5 (sbase : option spec_url) (input : list N) : bool :=
  in_proved_class4 sbase input || (in_class_file input && two_sl_file input) || rel2_class sbase input.

Lemma in_proved_class5_of4 sbase input : in_proved_class4 sbase input = true -> in_proved_class5 sbase input = true.
Proof. intros H. unfold in_proved_class5. rewrite H. reflexivity. Qed.

Lemma k_two_sl_shape R : k_two_sl R = true -> exists c1 c2 T, R = c1 :: c2 :: T /\ is_sl c1 = true /\ is_sl c2 = true.
Proof.
  destruct R as [|c1 [|c2 T]]; try discriminate. cbn [k_two_sl]. change (k_sl c1) with (is_sl c1). change (k_sl c2) with (is_sl c2).
  intros H. apply andb_true_iff in H. exists c1, c2, T. split; [reflexivity | exact H].
Qed.

Section Cover5.
Variable dbg : bool.
Variable shs : spec_host -> list N.

(* a narrowed input is in one of the three file classes *)
Lemma narrow_in_class5 base sbase input : full_rel dbg shs base sbase ->
  k_file_narrow_v3 base input = true ->
  (no_file_base sbase || two_sl_file input) && in_class_file input || rel2_class sbase input = true.
Proof.
  intros Hb. unfold k_file_narrow_v3. cbv zeta. rewrite cleaned_spec_clean.
  destruct (spec_scheme (spec_clean input)) as [[sch R]|] eqn:Es.
  - destruct (spec_scheme_some_leading _ _ _ Es) as [-> ->]. intros H.
    apply andb_true_iff in H. destruct H as [H H3]. apply andb_true_iff in H. destruct H as [H1 H2].
    assert (in_class_file input = true) as Hc.
    { unfold in_class_file. rewrite Es. change s_file with str_file in H1. rewrite H1. cbn [andb]. exact (k_file_ok_class R H3). }
    rewrite Hc, andb_true_r.
    assert (no_file_base sbase || two_sl_file input = true) as ->; [|reflexivity].
    destruct base as [b|]; destruct sbase as [sb|]; cbn [full_rel] in Hb; try contradiction; [|reflexivity].
    pose proof (rel_sch _ _ _ _ (proj1 (proj1 Hb))) as Hs. unfold no_file_base. rewrite <- Hs.
    change str_file with s_file. destruct (list_eqb (b_scheme b) s_file); [|reflexivity]. cbn [negb orb] in *.
    destruct (k_two_sl_shape R H2) as (c1 & c2 & T & -> & E1 & E2).
    unfold two_sl_file. rewrite Es. change s_file with str_file in H1. rewrite H1, E1, E2. reflexivity.
  - rewrite (spec_scheme_none_leading _ Es).
    destruct base as [b|]; [|discriminate]. destruct sbase as [sb|]; cbn [full_rel] in Hb; [|contradiction].
    pose proof (proj1 (proj1 Hb)) as Rl. intros H.
    apply andb_true_iff in H. destruct H as [H H4]. apply andb_true_iff in H. destruct H as [H H3].
    apply andb_true_iff in H. destruct H as [H1 H2].
    destruct (k_two_sl_shape _ H3) as (c1 & c2 & T & Ecl & E1 & E2).
    assert (rel2_class (Some sb) input = true) as ->; [|apply orb_true_r].
    cbn [rel2_class]. unfold in_class_file_rel2.
    rewrite <- (related_cbb dbg shs b sb Rl), <- (rel_sch _ _ _ _ Rl), H2. change str_file with s_file. rewrite H1.
    cbn [andb]. rewrite Ecl in *. rewrite E1, E2. cbn [andb]. exact (k_file_ok_class _ H4).
Qed.

(* coverage: outside Known_C01 every input is in a proved class *)
Theorem all_covers5 input base sbase : full_rel dbg shs base sbase ->
  known_c01_v3 base input = 0 -> in_proved_class5 sbase input = true.
Proof.
  intros Hb Hk. destruct (known_split5 base input Hk) as [H1|Hn].
  - apply in_proved_class5_of4, in_proved_class4_of3. exact (all_covers dbg shs input base sbase Hb H1).
  - pose proof (narrow_in_class5 base sbase input Hb Hn) as H.
    unfold in_proved_class5, in_proved_class4.
    destruct (rel2_class sbase input); [apply orb_true_r|]. rewrite orb_false_r in *.
    apply andb_true_iff in H. destruct H as [H Hc]. rewrite Hc, !andb_true_r in *.
    destruct (no_file_base sbase); [rewrite orb_true_r; reflexivity|]. cbn [orb] in H. rewrite H. apply orb_true_r.
Qed.
End Cover5.

(* host_hyp3 (the one host string of the class of in_proved_class3, if any); host_agree_file on the text between
   "//" and the path for a "file:" input of the file class (no file base, or two separators); the same for a
   scheme-less reference "//T" against a file base *)
Definition host_hyp5 (hp hpo : list N -> result host) (hd : host -> list N)
           (shp : bool -> list N -> option spec_host) (shs : spec_host -> list N)
           (sbase : option spec_url) (input : list N) : Prop :=
  host_hyp3 hp hpo hd shp shs sbase input
  /\ ((no_file_base sbase || two_sl_file input) && in_class_file input = true ->
      host_agree_file hp hd shp shs (class_host_text_f input))
  /\ (rel2_class sbase input = true -> host_agree_file hp hd shp shs (file_host_of (spec_clean input))).

Section Statements5.
Variable dbg : bool.
Variable hp hpo : list N -> result host.
Variable hd : host -> list N.
Variable shp : bool -> list N -> option spec_host.
Variable shs : spec_host -> list N.

Theorem partial_equivalence_good5 input base sbase : usv_list input ->
  full_rel dbg shs base sbase -> in_proved_class5 sbase input = true ->
  host_hyp5 hp hpo hd shp shs sbase input ->
  agree_good dbg shs (parse_url dbg hp hpo hd None base input) (spec_basic_url_parse shp input sbase)
  /\ (forall su u, spec_basic_url_parse shp input sbase = BDone su -> parse_url dbg hp hpo hd None base input = POk u ->
        full_base dbg shs u su).
Proof.
  intros Hu Hb Hc (HH3 & HHf & HHr). unfold in_proved_class5 in Hc.
  destruct (in_proved_class4 sbase input) eqn:Hc4.
  - apply (partial_equivalence_good4 dbg hp hpo hd shp shs input base sbase Hu Hb Hc4). split; [exact HH3|].
    intros H. apply HHf. apply andb_true_iff in H. destruct H as [H1 H2]. rewrite H1, H2. reflexivity.
  - cbn [orb] in Hc. destruct (in_class_file input && two_sl_file input) eqn:Hc2.
    + apply andb_true_iff in Hc2. destruct Hc2 as [Hcf H2].
      apply (class_file_two_good dbg hp hpo hd shp shs base sbase input Hu Hcf H2 (full_rel_sch _ _ _ _ Hb)).
      apply HHf. rewrite Hcf, H2, orb_true_r. reflexivity.
    + cbn [orb] in Hc. destruct base as [b|]; destruct sbase as [sb|]; cbn [full_rel] in Hb; try contradiction;
        [|discriminate Hc].
      cbn [rel2_class] in Hc.
      exact (class_file_rel2 dbg hp hpo hd shp shs b sb input Hu (proj1 (proj1 Hb)) Hc (HHr Hc)).
Qed.

(* C01_statement for known_c01_v3 *)
Theorem statement_all5 input base sbase : usv_list input ->
  full_rel dbg shs base sbase -> known_c01_v3 base input = 0 ->
  host_hyp5 hp hpo hd shp shs sbase input ->
  agree_good dbg shs (parse_url dbg hp hpo hd None base input) (spec_basic_url_parse shp input sbase)
  /\ (forall su u, spec_basic_url_parse shp input sbase = BDone su -> parse_url dbg hp hpo hd None base input = POk u ->
        full_base dbg shs u su).
Proof.
  intros Hu Hb Hk HH.
  exact (partial_equivalence_good5 input base sbase Hu Hb (all_covers5 dbg shs input base sbase Hb Hk) HH).
Qed.

End Statements5.

Lemma file_host_of_clean_usv input : usv_list input -> usv_list (file_host_of (spec_clean input)).
Proof.
  intros Hu. pose proof (usv_spec_clean input Hu) as Hcl. unfold file_host_of.
  destruct (spec_clean input) as [|c1 [|c2 T]]; try constructor.
  destruct (is_sl c1 && is_sl c2); [|constructor].
  apply (usv_of_in _ T); [exact (as_part_in T) | apply usv_cons in Hcl; destruct Hcl as [_ Hcl]; apply usv_cons in Hcl; tauto].
Qed.

(* the host model of Model/Host.v against the Standard's host parser over the same oracle *)
Theorem host_hyp5_model idna : (forall bs d, idna bs = Some d -> Forall dom_char_ok d) ->
  forall sbase input, usv_list input ->
  host_hyp5 (host_parse idna) host_parse_opaque host_display (spec_host_parser idna) spec_host_serializer sbase input.
Proof.
  intros Hout sbase input Hu. split; [exact (host_hyp3_model idna Hout sbase input Hu)|]. split; intros _.
  - apply host_agree_file_real; [exact Hout | apply class_host_text_f_usv; exact Hu].
  - apply host_agree_file_real; [exact Hout | apply file_host_of_clean_usv; exact Hu].
Qed.

Theorem statement_all5_model dbg idna : IdnaOK idna -> forall input base sbase,
  usv_list input -> full_rel dbg spec_host_serializer base sbase -> known_c01_v3 base input = 0 ->
  agree_good dbg spec_host_serializer
    (parse_url dbg (host_parse idna) host_parse_opaque host_display None base input)
    (spec_basic_url_parse (spec_host_parser idna) input sbase)
  /\ (forall su u, spec_basic_url_parse (spec_host_parser idna) input sbase = BDone su ->
        parse_url dbg (host_parse idna) host_parse_opaque host_display None base input = POk u ->
        full_base dbg spec_host_serializer u su).
Proof.
  intros HI input base sbase Hu Hb Hk. apply statement_all5; try assumption.
  apply host_hyp5_model; [exact (idna_out idna HI) | exact Hu].
Qed.

Theorem statement_instance5 dbg idna : IdnaOK idna -> forall input base sbase,
  usv_list input -> full_rel dbg spec_host_serializer base sbase -> known_c01_v3 base input = 0 ->
  statement_shape dbg spec_host_serializer
    (parse_url dbg (host_parse idna) host_parse_opaque host_display None base input)
    (spec_basic_url_parse (spec_host_parser idna) input sbase).
Proof.
  intros HI input base sbase Hu Hb Hk. apply agree_good_shape.
  exact (proj1 (statement_all5_model dbg idna HI input base sbase Hu Hb Hk)).
Qed.

(* the same with a UTF-8 encoding override *)
Theorem statement_all5_model_utf8 dbg idna : IdnaOK idna -> forall input base sbase,
  usv_list input -> full_rel dbg spec_host_serializer base sbase -> known_c01_v3 base input = 0 ->
  agree_good dbg spec_host_serializer
    (parse_url dbg (host_parse idna) host_parse_opaque host_display (Some utf8_encode) base input)
    (spec_basic_url_parse (spec_host_parser idna) input sbase).
Proof.
  intros HI input base sbase Hu Hb Hk. rewrite parse_url_utf8_override.
  exact (proj1 (statement_all5_model dbg idna HI input base sbase Hu Hb Hk)).
Qed.

(* class 1 of known_c01_v2 against class 1 of known_c01_v3, with the parse result of file://h/tmp/x as base:
   in the first only (known_c01_v2 = 1, known_c01_v3 = 0; the sides agree by the theorem):  file:///C:/a/../b ;
     file://h2.x/a/../b?q ;  fIle:\\/y ;  //h2.x/a/../b?q ;  \\/y ;
   in both:  x ;  /x ;  file:/x ;  file:x ;  //h.x/C:/ (F-C01-1) ;  file:////foo (F-C01-3) ;
   outside both:  #f ;  the empty reference *)
Definition f2_1 : list N := [102;105;108;101;58;47;47;104;50;46;120;47;97;47;46;46;47;98;63;113].
Definition f2_2 : list N := [102;73;108;101;58;92;92;47;121].
Definition f2_3 : list N := [47;47;104;50;46;120;47;97;47;46;46;47;98;63;113].
Definition f2_4 : list N := [92;92;47;121].

Theorem known_file_narrowed2 :
  match parse_url true (host_parse id_idna) host_parse_opaque host_display None None nar_1,
        parse_url true (host_parse id_idna) host_parse_opaque host_display None None file_base_text with
  | POk bh, POk bf =>
      let left i := known_c01_v2 (Some bf) i = 1 /\ known_c01_v3 (Some bf) i = 0 in
      left fnar_1 /\ left f2_1 /\ left f2_2 /\ left f2_3 /\ left f2_4
      /\ known_c01_v3 (Some bf) [120] = 1 /\ known_c01_v3 (Some bf) [47; 120] = 1
      /\ known_c01_v3 (Some bf) [102;105;108;101;58;47;120] = 1 /\ known_c01_v3 (Some bf) [102;105;108;101;58;120] = 1
      /\ known_c01_v3 (Some bf) [47;47;104;46;120;47;67;58;47] = 1 /\ known_c01_v3 (Some bf) fstay_1 = 1
      /\ known_c01_v3 (Some bf) [35; 102] = 0 /\ known_c01_v3 (Some bf) [] = 0
      (* a scheme-less "//T" against a non-file base is not a file input: known_c01_v3 = known_c01_v2 there *)
      /\ known_c01_v3 (Some bh) f2_3 = known_c01_v2 (Some bh) f2_3 /\ known_c01_v3 (Some bh) fnar_1 = 0
  | _, _ => False
  end.
Proof. vm_compute. repeat split. Qed.

(* non-vacuity of statement_all5_model on inputs that only the predicate of this file admits: file base, known_c01_v3 = 0,
   in_proved_class4 = false, both sides succeed with the same ten API strings *)
Example statement_all5_nonvacuous :
  let idna := id_idna in
  let P base i := parse_url true (host_parse idna) host_parse_opaque host_display None base i in
  let S sbase i := spec_basic_url_parse (spec_host_parser idna) i sbase in
  match P None file_base_text, S None file_base_text with
  | POk b, BDone sb =>
      let ok i := known_c01_v3 (Some b) i = 0 /\ known_c01_v2 (Some b) i = 1
                  /\ in_proved_class4 (Some sb) i = false /\ in_proved_class5 (Some sb) i = true
                  /\ match P (Some b) i, S (Some sb) i with
                     | POk u, BDone su => api_of_model true u = Some (spec_api_list spec_host_serializer su)
                     | _, _ => False end in
      ok f2_1 /\ ok f2_2 /\ ok f2_3 /\ ok f2_4
  | _, _ => False
  end.
Proof. vm_compute. repeat split. Qed.
