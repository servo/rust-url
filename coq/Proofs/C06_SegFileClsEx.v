(* Proofs/C06_SegFileClsEx.v - the side condition of C06_SegFileCls read on the ARGUMENTS of push / extend: a segment
   whose characters, after the removal of TAB / LF / CR, do not begin with an ASCII letter followed by ':' or '|'
   (arg_nd) is written as a text that does not begin like a drive letter (seg_nd), because percent-encoding and UTF-8
   encoding never produce a letter, ':' or '|' from another character.  Example on file:///tmp/a. *)
From Coq Require Import String.
From RU Require Import Base.Prelude Base.Utf8 Base.Utf8Facts Model.AsciiSet Gen.Tables
  Model.PercentEncoding Model.HostT Model.UrlRecord Model.Parser Model.Setters Model.WF
  Proofs.ListN Proofs.C14_Set Proofs.C14_Enc Proofs.C02_Parts Proofs.C02_Opaque Proofs.C02_Path Proofs.C02_Reach Proofs.C02_AuthParts Proofs.C02_Canon
  Proofs.C02_AuthMain Proofs.C02_File Proofs.C02_FileCanon
  Proofs.C06_Path Proofs.C06_Segments Proofs.C06_SegPush Proofs.C06_SegFile Proofs.C06_SegFileCanon Proofs.C06_SegFileCls.
Open Scope N_scope.
Open Scope list_scope.

Lemma not_alpha_37_high b : b = 37 \/ 192 <= b -> is_alpha b = false.
Proof. intros H. unfold is_alpha, is_upper, is_lower. destruct H as [->|H]; [reflexivity|]. lia. Qed.

(* the text written for one character: the character itself, or a text led by '%' or by a byte >= 0xC0 *)
Lemma etext1 c : etext [c] = [c] \/ exists b t, etext [c] = b :: t /\ (b = 37 \/ 192 <= b).
Proof.
  unfold etext. set (S := seg_set STFile). unfold utf8_encode. cbn [flat_map]. rewrite app_nil_r. unfold utf8_encode1.
  destruct (c <? 128) eqn:E1; [|destruct (c <? 2048); [|destruct (c <? 65536)]];
    rewrite encode_cons; unfold enc1, enc_byte_spec; destruct (should_encode S _); cbn [app];
    try (left; reflexivity); right; eexists; eexists; (split; [reflexivity|]); lia.
Qed.

Lemma etext_cons c r : etext (c :: r) = etext [c] ++ etext r.
Proof. change (c :: r) with ([c] ++ r). apply etext_app. Qed.

Lemma etext_head d r : exists b t, etext (d :: r) = b :: t /\ (b = 37 \/ b = d \/ 192 <= b).
Proof.
  rewrite etext_cons. destruct (etext1 d) as [->|(b & t & -> & Hb)].
  - exists d, (etext r). split; [reflexivity | lia].
  - exists b, (t ++ etext r). split; [reflexivity | lia].
Qed.

Lemma etext_not_like s : wdl_like s = false -> wdl_like (etext s) = false.
Proof.
  destruct s as [|c r]; [reflexivity|]. intros H. rewrite etext_cons.
  destruct (etext1 c) as [->|(b & t & -> & Hb)].
  - destruct r as [|d r']; [reflexivity|]. destruct (etext_head d r') as (b & t & -> & Hb).
    cbn [app wdl_like] in *. destruct (is_alpha c); [|reflexivity]. cbn [andb] in *.
    apply orb_false_iff in H. destruct H as [H1 H2]. apply N.eqb_neq in H1. apply N.eqb_neq in H2.
    apply orb_false_iff. split; apply N.eqb_neq; lia.
  - cbn [app]. destruct (t ++ etext r) as [|b2 x]; [reflexivity|]. cbn [wdl_like].
    rewrite (not_alpha_37_high b Hb). reflexivity.
Qed.

(* the side condition on the arguments *)
Definition arg_nd (seg : list N) : bool := negb (wdl_like (strip_tnl seg)).
Definition op_arg_nd (o : psm_op) : bool :=
  match o with PPush s => arg_nd s | PExtend ss => forallb arg_nd ss | _ => true end.
Definition session_arg_nd (ops : list psm_op) : bool := forallb op_arg_nd ops.

Lemma arg_nd_seg_nd seg : arg_nd seg = true -> seg_nd seg = true.
Proof.
  unfold arg_nd, seg_nd. intros H. apply negb_true_iff in H. apply orb_true_iff. right. apply negb_true_iff.
  exact (etext_not_like (strip_tnl seg) H).
Qed.

Lemma session_arg_nd_nd ops : session_arg_nd ops = true -> session_nd ops = true.
Proof.
  unfold session_arg_nd, session_nd. apply forallb_impl. intros o H.
  destruct o; cbn [op_arg_nd op_nd] in *; try reflexivity.
  - apply arg_nd_seg_nd. exact H.
  - revert H. apply forallb_impl. exact arg_nd_seg_nd.
Qed.

Section FileArg.
Variable dbg : bool.
Variable hp hpo : list N -> result host.
Variable hd : host -> list N.
Hypothesis HRT : HostRT hp hpo hd.

(* a session whose pushed segments do not begin (TAB / LF / CR removed) with a letter followed by ':' or '|', on a
   canonical file record, returns a canonical file record, the path replaced by the explicit session text *)
Theorem psm_FileCanon_arg u ops u' : FileCanon hp hd u -> session_arg_nd ops = true -> Forall psm_op_usv ops ->
  path_segments_session dbg u ops = Some (u', SOk) -> nlen (ser u') <= U32_MAX_P ->
  FileCanon hp hd u' /\ u' = with_path u (session_text STFile (path_bytes u) ops).
Proof.
  intros FC Hn. exact (psm_FileCanon_nd dbg hp hpo hd HRT u ops u' FC (session_arg_nd_nd ops Hn)).
Qed.

(* one push and one pop *)
Corollary push_FileCanon u seg u' : FileCanon hp hd u -> arg_nd seg = true -> usv_list seg ->
  path_segments_session dbg u [PPush seg] = Some (u', SOk) -> nlen (ser u') <= U32_MAX_P -> FileCanon hp hd u'.
Proof.
  intros FC Hn Hu E Hb. refine (proj1 (psm_FileCanon_arg u [PPush seg] u' FC _ _ E Hb)).
  - unfold session_arg_nd. cbn [forallb op_arg_nd]. rewrite Hn. reflexivity.
  - constructor; [exact Hu | constructor].
Qed.

Corollary pop_FileCanon u u' : FileCanon hp hd u ->
  path_segments_session dbg u [PPop] = Some (u', SOk) -> nlen (ser u') <= U32_MAX_P -> FileCanon hp hd u'.
Proof.
  intros FC E Hb. refine (proj1 (psm_FileCanon_arg u [PPop] u' FC eq_refl _ E Hb)).
  constructor; [exact I | constructor].
Qed.
End FileArg.

(* file:///tmp/a *)
Definition fx_url : url := file_curl ex_hd None (path_text [B "tmp"] (B "a")) None None.
Definition fx_ops : list psm_op := [PPop; PPush (B "b c"); PPopIfEmpty; PExtend [B ".."; 9 :: B "d"]; PPush (B "1:")].
Definition fx_res : url := file_curl ex_hd None (path_text [B "tmp"; B "b%20c"; B "d"] (B "1:")) None None.

Example fx_file_ok : file_ok ex_hp ex_hd None [B "tmp"] (B "a") None None.
Proof. constructor; try (vm_compute; reflexivity); try (vm_compute; discriminate); exact I. Qed.

Example file_tmp_a_session :
  HostRT ex_hp ex_hp ex_hd /\ FileCanon ex_hp ex_hd fx_url /\ ser fx_url = B "file:///tmp/a"
  /\ session_arg_nd fx_ops = true /\ Forall psm_op_usv fx_ops
  /\ path_segments_session true fx_url fx_ops = Some (fx_res, SOk)
  /\ ser fx_res = B "file:///tmp/b%20c/d/1:" /\ FileCanon ex_hp ex_hd fx_res
  (* one push, one pop *)
  /\ (exists u1, path_segments_session true fx_url [PPush (B "x y")] = Some (u1, SOk) /\ ser u1 = B "file:///tmp/a/x%20y"
                 /\ FileCanon ex_hp ex_hd u1)
  /\ (exists u2, path_segments_session true fx_url [PPop] = Some (u2, SOk) /\ ser u2 = B "file:///tmp"
                 /\ FileCanon ex_hp ex_hd u2)
  (* the side condition is needed: "C|" pushed at the root is rewritten to a drive letter, a class C02 excludes *)
  /\ session_arg_nd [PClear; PPush (B "C|")] = false
  /\ (exists u3, path_segments_session true fx_url [PClear; PPush (B "C|")] = Some (u3, SOk) /\ ser u3 = B "file:///C:"
                 /\ Known_file_drive u3 = true).
Proof.
  pose proof (proj1 ex_host_RT) as HRT.
  assert (FileCanon ex_hp ex_hd fx_url) as FC by (constructor; exact fx_file_ok).
  assert (Forall psm_op_usv fx_ops) as Hu.
  { repeat constructor; unfold is_usv; lia. }
  assert (path_segments_session true fx_url fx_ops = Some (fx_res, SOk)) as E by (vm_compute; reflexivity).
  split; [exact HRT|]. split; [exact FC|]. split; [vm_compute; reflexivity|]. split; [vm_compute; reflexivity|].
  split; [exact Hu|]. split; [exact E|]. split; [vm_compute; reflexivity|]. split.
  { refine (proj1 (psm_FileCanon_arg true ex_hp ex_hp ex_hd HRT fx_url fx_ops fx_res FC eq_refl Hu E _)). vm_compute. discriminate. }
  split.
  { eexists. split; [vm_compute; reflexivity|]. split; [vm_compute; reflexivity|].
    refine (push_FileCanon true ex_hp ex_hp ex_hd HRT fx_url (B "x y") _ FC eq_refl _ _ _).
    - repeat constructor; unfold is_usv; lia.
    - vm_compute. reflexivity.
    - vm_compute. discriminate. }
  split.
  { eexists. split; [vm_compute; reflexivity|]. split; [vm_compute; reflexivity|].
    refine (pop_FileCanon true ex_hp ex_hp ex_hd HRT fx_url _ FC _ _).
    - vm_compute. reflexivity.
    - vm_compute. discriminate. }
  split; [vm_compute; reflexivity|].
  eexists. split; [vm_compute; reflexivity|]. split; vm_compute; reflexivity.
Qed.
