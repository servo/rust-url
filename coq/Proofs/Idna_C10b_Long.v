(* Proofs/Idna_C10b_Long.v - F-C10-1: ToASCII is not idempotent on names with a long non-ASCII label
   (c10_idem_refuted : C10_idem_statement of Proofs/Idna_Hyp.v is false), and two further refutations of statements
   of Proofs/Idna_Hyp.v: c12_statement_refuted (C12_statement, same witness) and c10_case_refuted (C10_case_statement).

   check_label (uts46.rs 1608-1618) caps a non-ASCII label at PUNYCODE_ENCODE_MAX_INPUT_LENGTH = 1000 scalar
   values; the all-ASCII xn-- path (uts46.rs 1186-1190, and 1279-1288 on the mapped stream) rejects a label with
   more than PUNYCODE_DECODE_MAX_INPUT_LENGTH = 2000 characters after xn--.  A label of at most 1000 scalar
   values can have a Punycode form longer than 2000 characters (1000 ideographs 20 code points apart: 2958), so
   to_ascii returns a name that to_ascii, to_unicode and to_user_interface then reject.

   The class: Known_C10_long r = some dot-separated label of the RESULT r starts with xn-- (any case) and has more
   than 2000 characters after it.

   Also here: C10_case_statement is false for an adapter that satisfies AdapterOK but gives a lower-case ASCII
   letter a bidi class that cannot start a label (AdapterOK says nothing about bidi_class): the labels of the
   pass-through prefix are never checked by the bidi rule, the same labels in upper case are. *)
From RU Require Import Base.Prelude Base.Utf8 Base.U32_c13 Gen.Tables Model.Punycode Model.Uts46
  Proofs.Idna_Sim Proofs.Idna_Api Proofs.Idna_Known Proofs.Idna_Hyp.
(* for the witness: the Punycode form of the 1000-ideograph label is obtained from the C13 round trip
   (C13_Main.internal_main, Idna_C12d_EncDec.enc_dec_internal) rather than by running the encoder *)
From RU Require Proofs.Idna_PunyRT Proofs.C13_Main Proofs.Idna_C12d_EncDec.

Definition long_puny_label (l : list N) : bool :=
  has_punycode_prefix l && (PUNYCODE_DECODE_MAX_INPUT_LENGTH <? len l - 4).
Definition Known_C10_long (r : list N) : bool := existsb long_puny_label (split_on DOT r).
(* the class as a predicate on the input *)
Definition Known_C10 (A : adapter) (cfg : bool) (d : list N) (deny : N) (hy : hyphens) : bool :=
  match to_ascii A cfg d deny hy DIgnore with Ok (_, r) => Known_C10_long r | _ => false end.

(* an adapter that satisfies AdapterOK: ASCII lower-casing, nothing else; bc is its bidi_class *)
Definition lowad_with (bc : N -> N) : adapter :=
  {| map_normalize := map to_lower; normalize_validate := fun l => l;
     joining_type := fun _ => 0; bidi_class := bc;
     is_mark := fun _ => false; is_virama := fun _ => false |}.
Definition lowad : adapter := lowad_with toy_bc.

Lemma lowad_ok bc : AdapterOK (lowad_with bc).
Proof.
  constructor; cbn [lowad_with map_normalize normalize_validate].
  - reflexivity.
  - intros l _. reflexivity.
  - intros l l' H. exact H.
  - intros l _ piece _. reflexivity.
  - intros l H1 H2. rewrite H1 in H2. discriminate.
Qed.

Lemma forallb_bytes l : forallb is_byteb l = true -> bytes l.
Proof.
  intros H. unfold bytes. apply Forall_forall. intros x Hx. rewrite forallb_forall in H.
  specialize (H x Hx). unfold is_byteb in H. unfold is_byte. lia.
Qed.


(* the witness: one label of 1000 ideographs U+4E00, U+4E14, ... (20 apart) *)
Fixpoint spread (n : nat) (c step : N) : list N :=
  match n with O => [] | S k => c :: spread k (c + step) step end.
Definition W_C10_long_U := Eval vm_compute in spread 1000 19968 20.
Definition W_C10_long := Eval vm_compute in utf8_encode W_C10_long_U.
Definition W_C10_long_A :=
  Eval vm_compute in match to_ascii lowad false W_C10_long DENY_EMPTY HAllow DIgnore with Ok (_, r) => r | _ => [] end.


(* to_ascii of a name that process_inner turns into a single non-ASCII label: xn-- and what the encoder writes *)
Lemma to_ascii_one_label A cfg d deny hy u p : d <> [] ->
  process_inner A cfg true hy deny d = IRes 0 false false u [AalOther] ->
  split_on DOT u = [u] -> is_ascii_l u = false -> existsb is_fffd u = false ->
  encode_internal cfg u = Ok p ->
  to_ascii A cfg d deny hy DIgnore = Ok (false, XN_PREFIX ++ p).
Proof.
  intros Hne Hi Hs Ha Hf He. unfold to_ascii, process. rewrite Hi.
  destruct (0 =? len d) eqn:E; [apply len_nil_iff in E; contradiction|].
  rewrite Hf. cbn [andb Bool.eqb negb]. rewrite andb_false_r. cbv zeta. rewrite Hs.
  cbn [walk1]. rewrite classify_spec, Ha, Hf, andb_false_r.
  unfold never_unicode, flush_prefix, write_punycode_label. cbn [negb orb]. rewrite He.
  cbn [wcons wapp fst snd run_sink concat firstn N.to_nat app negb dns_is_ignore]. rewrite app_nil_r, concat_chars. reflexivity.
Qed.

Lemma w_c10_long_usv : usv_list W_C10_long_U.
Proof.
  apply Forall_forall. intros c Hc. apply is_usvb_spec. revert c Hc. apply forallb_forall. vm_compute. reflexivity.
Qed.

(* The Punycode form is not computed by the encoder (quadratic in the 1000 scalar values) but read back by the
   decoder: the u8 decoder returns the label, so the encoder writes the lower-cased text (enc_dec_internal), which is
   the text itself; and below 1001 scalar values the encoder does not depend on the debug assertions. *)
Lemma w_c10_long_puny cfg : encode_internal cfg W_C10_long_U = Ok (skipn 4 W_C10_long_A).
Proof.
  assert (Hl : (length W_C10_long_U <= 1000)%nat) by (vm_compute; lia).
  assert (E : encode_internal false W_C10_long_U = Ok (map to_lower (skipn 4 W_C10_long_A))).
  { apply Idna_C12d_EncDec.enc_dec_internal; [| |vm_compute; reflexivity|exact w_c10_long_usv|exact Hl].
    - apply Forall_forall. intros b Hb. apply N.ltb_lt. revert b Hb. apply forallb_forall. vm_compute. reflexivity.
    - vm_compute. discriminate. }
  destruct (C13_Main.internal_main cfg _ w_c10_long_usv Hl) as [E1 E2].
  destruct (C13_Main.internal_main false _ w_c10_long_usv Hl) as [F1 F2].
  rewrite E1, E2, <- F2, <- F1, E. vm_compute. reflexivity.
Qed.

Lemma w_c10_long_inner cfg ff :
  process_inner lowad cfg ff HAllow DENY_EMPTY W_C10_long = IRes 0 false false W_C10_long_U [AalOther].
Proof. destruct cfg; vm_compute; reflexivity. Qed.

Lemma w_c10_long_ascii cfg :
  to_ascii lowad cfg W_C10_long DENY_EMPTY HAllow DIgnore = Ok (false, W_C10_long_A) /\
  to_ascii lowad cfg W_C10_long_A DENY_EMPTY HAllow DIgnore = Err.
Proof.
  split; [|destruct cfg; vm_compute; reflexivity].
  apply (to_ascii_one_label lowad cfg W_C10_long DENY_EMPTY HAllow W_C10_long_U (skipn 4 W_C10_long_A));
    [discriminate|apply w_c10_long_inner| | | |apply w_c10_long_puny]; vm_compute; reflexivity.
Qed.

Lemma w_c10_long :
  bytes W_C10_long /\ len W_C10_long_U = 1000 /\ len W_C10_long_A = 2962 /\
  to_ascii lowad false W_C10_long DENY_EMPTY HAllow DIgnore = Ok (false, W_C10_long_A) /\
  to_ascii lowad false W_C10_long_A DENY_EMPTY HAllow DIgnore = Err /\
  Known_C10_long W_C10_long_A = true /\
  Known_C12 lowad false W_C10_long DENY_EMPTY HAllow = false /\
  Known_C11 lowad false W_C10_long DENY_EMPTY HAllow = false.
Proof.
  split; [apply forallb_bytes; vm_compute; reflexivity|]. do 2 (split; [vm_compute; reflexivity|]).
  split; [exact (proj1 (w_c10_long_ascii false))|]. split; [exact (proj2 (w_c10_long_ascii false))|].
  split; [vm_compute; reflexivity|].
  unfold Known_C12, Known_C11. rewrite w_c10_long_inner. vm_compute. split; reflexivity.
Qed.

Lemma w_c10_long_unicode :
  to_unicode lowad false W_C10_long DENY_EMPTY HAllow = UI false W_C10_long_U false /\
  ui_err (to_unicode lowad false W_C10_long_A DENY_EMPTY HAllow) = true /\
  ui_err (to_user_interface lowad false W_C10_long_A DENY_EMPTY HAllow never_unicode) = true.
Proof.
  split; [|vm_compute; split; reflexivity].
  unfold to_unicode, to_user_interface, process. rewrite w_c10_long_inner. vm_compute. reflexivity.
Qed.

(* the same with debug assertions on *)
Lemma w_c10_long_dbg :
  to_ascii lowad true W_C10_long DENY_EMPTY HAllow DIgnore = Ok (false, W_C10_long_A) /\
  to_ascii lowad true W_C10_long_A DENY_EMPTY HAllow DIgnore = Err.
Proof. exact (w_c10_long_ascii true). Qed.

(* C10_idem_statement is false (outside Known_C12): Properties C10_idem_refuted *)
Theorem c10_idem_refuted : exists A cfg, AdapterOK A /\ ~ C10_idem_statement A cfg.
Proof.
  exists lowad, false. split; [exact (lowad_ok toy_bc)|]. intros H.
  destruct w_c10_long as (Hb & _ & _ & H1 & H2 & _ & H12 & _).
  destruct (H (lowad_ok toy_bc) (Idna_PunyRT.punyrt_holds false) W_C10_long DENY_EMPTY HAllow DIgnore false W_C10_long_A
              Hb deny_empty_valid H12 H1) as (b' & Hx).
  rewrite H2 in Hx. discriminate.
Qed.

(* C12_statement is false outside Known_C12 and Known_C11, by the clause u_of_a: Properties C12_statement_refuted *)
Theorem c12_statement_refuted : exists A cfg, AdapterOK A /\ ~ C12_statement A cfg.
Proof.
  exists lowad, false. split; [exact (lowad_ok toy_bc)|]. intros H.
  destruct w_c10_long as (Hb & _ & _ & H1 & _ & _ & H12 & H11).
  destruct (H (lowad_ok toy_bc) (Idna_PunyRT.punyrt_holds false) W_C10_long DENY_EMPTY HAllow false W_C10_long_A
              Hb deny_empty_valid H12 H11 H1) as ((_ & Hx) & _).
  rewrite (proj1 (proj2 w_c10_long_unicode)) in Hx. discriminate.
Qed.

(* C10_case_statement is false relative to AdapterOK alone: Properties C10_case_refuted *)
Definition odd_bc (c : N) : N := if c =? 1488 then 593 else 0.
Definition oddbidi : adapter := lowad_with odd_bc.
Definition W_C10_case_lo : list N := [97; 46; 215; 144].    (* "a.א" *)
Definition W_C10_case_up : list N := [65; 46; 215; 144].    (* "A.א" *)

Lemma w_c10_case cfg :
  ascii_case_variant W_C10_case_lo W_C10_case_up /\
  to_ascii oddbidi cfg W_C10_case_lo DENY_EMPTY HAllow DIgnore = Ok (false, [97; 46; 120; 110; 45; 45; 52; 100; 98]) /\
  to_ascii oddbidi cfg W_C10_case_up DENY_EMPTY HAllow DIgnore = Err /\
  (* with lowad (bidi classes toy_bc of Proofs/Idna_Known.v: a-z are L) the two agree *)
  to_ascii lowad cfg W_C10_case_up DENY_EMPTY HAllow DIgnore = Ok (false, [97; 46; 120; 110; 45; 45; 52; 100; 98]).
Proof. destruct cfg; vm_compute; repeat split; reflexivity. Qed.

Theorem c10_case_refuted : exists A, AdapterOK A /\ forall cfg, ~ C10_case_statement A cfg.
Proof.
  exists oddbidi. split; [exact (lowad_ok odd_bc)|]. intros cfg H.
  destruct (w_c10_case cfg) as (Hv & H1 & H2 & _).
  assert (Hb : bytes W_C10_case_lo) by (unfold W_C10_case_lo; repeat constructor; unfold is_byte; lia).
  destruct (H (lowad_ok odd_bc) W_C10_case_lo W_C10_case_up DENY_EMPTY HAllow DIgnore false _ Hb deny_empty_valid Hv H1)
    as (b' & Hx).
  rewrite H2 in Hx. discriminate.
Qed.
