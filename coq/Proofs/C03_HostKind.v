(* Proofs/C03_HostKind.v - the host text invariant for IP hosts, part A (the parser):
     KT hd u : if the stored host kind is an address (HI_Ipv4 a / HI_Ipv6 p), the host slice of the serialization is the
               Display text hd of that address.
   (For a domain the record stores no value: Url::host() returns Domain(host slice), so host_str = Display(host) holds
   there by construction; for IP hosts it is this invariant, which wf_b does not carry.)
   Every record Parser::parse_url returns satisfies KT, from a base that is well-formed, satisfies bk and KT - any input,
   any override, both builds, the file scheme included.  By the arms of C03_ReachFile.parse_arm:
     the authority state : phap_shape - the host text is the display of the host returned, the kind is hi_of_host of it;
     a kept front        : same_fd - kind and host text are those of the base;  "scheme:path": no host;
     file states         : "file://" + display of the host Host::parse returned / the host text of the file base / no host. *)
From RU Require Import Base.Prelude Model.HostT Model.UrlRecord Model.Parser Model.WF Proofs.ListN
  Proofs.C06_List Proofs.C03_WF Proofs.C03_ReachParts Proofs.C03_ReachFile Proofs.C05_BaseOk Proofs.C05_AuthOfs
  Proofs.C03_ParseFront.
Open Scope N_scope.
Open Scope list_scope.

Definition ktx (hd : host -> list N) (hi : host_internal) (t : list N) : Prop :=
  match hi with
  | HI_Ipv4 a => t = hd (HIpv4 a)
  | HI_Ipv6 p => t = hd (HIpv6 p)
  | _ => True
  end.

Definition KT (hd : host -> list N) (u : url) : Prop := ktx hd (hosti u) (htext u).

Lemma ktx_host hd h : ktx hd (hi_of_host h) (hd h).
Proof. destruct h as [[|c d]|a|p]; cbn [hi_of_host ktx]; try exact I; reflexivity. Qed.

Lemma ktx_none hd t : ktx hd HI_None t.
Proof. exact I. Qed.

Lemma kt_no_host hd u : hosti u = HI_None -> KT hd u.
Proof. unfold KT. intros ->. exact I. Qed.

Lemma same_fd_KT hd b u : same_fd b u -> KT hd b -> KT hd u.
Proof.
  intros (_ & Eh & _ & Et) K. unfold KT in *. rewrite Eh.
  destruct (hosti b) eqn:E; try exact I; (rewrite Et; [exact K | unfold has_host; rewrite E; reflexivity]).
Qed.

Section Arms.
Variable dbg : bool.
Variable hp hpo : list N -> result host.
Variable hd : host -> list N.
Variable ovr : option (list N -> list N).
Hypothesis HW : HostWf hp hpo hd.
Local Notation KT := (KT hd).

Theorem ads_kt st se ser0 l u : nlen ser0 = se + 1 -> st_is_file st = false ->
  after_double_slash dbg hp hpo hd ovr CUrlParser st se ser0 l = POk u -> KT u.
Proof using HW.
  intros L0 Hnf H. destruct (ads_front dbg hp hpo hd ovr HW st se ser0 l u L0 Hnf H) as (h & _ & E5 & Et & _).
  unfold C03_HostKind.KT. rewrite E5, Et. apply ktx_host.
Qed.

Theorem parse_arm_kt base u : match base with Some b => wf_b b = true /\ KT b | None => True end ->
  parse_arm dbg hp hpo hd ovr base u -> KT u.
Proof using HW.
  intros Hb [st se ser0 l Hs Hnf _ H | se ser0 s rem Hs _ A L _ H | b -> B | st s he hi t rem s4 qs fs P F C _ Hq ->].
  - exact (ads_kt st se ser0 l u (proj2 (proj2 (proj2 (proj2 Hs)))) Hnf H).
  - apply kt_no_host. exact (proj1 (proj2 (no_authority_front ovr se ser0 s rem u (proj2 (proj2 (proj2 (proj2 Hs)))) A L H))).
  - destruct Hb as [W Kb]. exact (same_fd_KT hd b u (base_arm_same_fd ovr b u W B) Kb).
  - pose proof (nnth_lt _ _ _ C) as Lh. destruct (file_text_split s he t P ltac:(lia)) as (_ & _ & Et).
    destruct (pqf_shape _ _ _ _ _ _ _ _ Hq) as (q & f & -> & _).
    unfold C03_HostKind.KT, htext, piece, file_url. cbn [hosti host_start host_end ser].
    rewrite (pre_piece (nlen s) s _ 7 he (agree_pre_app_r s _)) by lia. rewrite Et.
    destruct F as [|h _ _|b -> _ _]; [exact I | apply ktx_host | exact (proj2 Hb)].
Qed.

Theorem parse_url_kt base input u :
  match base with Some b => wf_b b = true /\ bk b /\ KT b | None => True end ->
  parse_url dbg hp hpo hd ovr base input = POk u -> KT u.
Proof using HW.
  intros Hb H. apply (parse_arm_kt base u).
  - destruct base as [b|]; [|exact I]. destruct Hb as (W & _ & Kb). split; assumption.
  - apply (parse_url_arm dbg hp hpo hd ovr HW base input u); [|exact H].
    destruct base as [b|]; [|exact I]. destruct Hb as (W & K & _). apply base_ok_iff. split; assumption.
Qed.

End Arms.

(* from a base with inv03 *)
Theorem parse_url_kt_inv dbg hp hpo hd ovr base input u : HostWf hp hpo hd ->
  match base with Some b => inv03 b /\ KT hd b | None => True end ->
  parse_url dbg hp hpo hd ovr base input = POk u -> KT hd u.
Proof.
  intros HW Hb Hp. apply (parse_url_kt dbg hp hpo hd ovr HW base input u); [|exact Hp].
  destruct base as [b|]; [|exact I]. destruct Hb as (([Wb Tb] & Ab & _) & Kb).
  split; [exact Wb|]. split; [exact (as_bk b Wb Ab) | exact Kb].
Qed.
