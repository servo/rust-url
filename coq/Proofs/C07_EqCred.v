(* Proofs/C07_EqCred.v - C07 equivalence for the username and the password setters: on every pair
   of related records (Proofs/C07_Corr.v corr) and for every value, url::quirks::set_username /
   set_password do not panic and leave a record related to the result of the Standard's username /
   password attribute setter ("cannot have a username/password/port" => ignored on both sides;
   otherwise the userinfo-percent-encoded value).
   The only layout fact that the read-backs of Proofs/C06_Cred.v do not determine is whether an '@'
   is written; it is obtained from `tight` (no "//@host"), proved here from the code of the two
   mutators. *)
From RU Require Import Base.Prelude Base.Utf8 Base.Utf8Facts Model.AsciiSet Gen.Tables Model.PercentEncoding
  Model.HostT Model.UrlRecord Model.Parser Model.Setters Model.WF Model.KnownC01 Model.KnownC07 Spec.Whatwg
  Proofs.ListN Proofs.C03_WF Proofs.C06_List Proofs.C06_WFI Proofs.C06_Tail Proofs.C06_Suffix Proofs.C06_Front
  Proofs.C06_Steps Proofs.C06_FragQuery Proofs.C06_Port Proofs.C06_Cred Proofs.C06_Atomic
  Proofs.C02_Enc Proofs.C02_Parts Proofs.C01_Tables Proofs.C01_EqRun Proofs.C01_EqEnc Proofs.C01_EqApi
  Proofs.C07_Defs Proofs.C07_Setters Proofs.C07_Corr Proofs.C07_SpecRun.

(* no "//@": an '@' directly after "//" is never written *)
Definition tight (u : url) : Prop :=
  username_end u = scheme_end u + 3 -> byte_eqb (ser u) (username_end u) 64 = false.

Lemma wf_userinfo_ok u : wf_b u = true -> has_authority_b u = true -> userinfo_ok u.
Proof.
  intros W Ha. destruct (proj1 (wf_b_iff u) W) as (_ & A & _). rewrite Ha in A.
  destruct A as [(_ & _ & _ & _ & _ & UI & _) _]. exact UI.
Qed.

(* the '@' flag from the read-backs *)
Lemma at_flag_by_accessors dbg u un pw : wf_b u = true -> has_authority_b u = true -> tight u ->
  username dbg u = Some un -> password dbg u = Some pw ->
  negb (username_end u =? host_start u) = negb (list_eqb un []) || opt_is_some pw.
Proof.
  intros W Ha T Eun Epw.
  pose proof (wf_auth_facts u W Ha) as F.
  pose proof (af_ue F); pose proof (af_hs F); pose proof (af_he F); pose proof (af_ps F); pose proof (af_len F).
  rewrite (username_eval dbg u W) in Eun. injection Eun as Eun. cbn [pidx] in Eun. rewrite Ha in Eun.
  rewrite (password_piece dbg u W) in Epw. injection Epw as Epw.
  assert (nlen un = username_end u - (scheme_end u + 3)) as Lun.
  { rewrite <- Eun. unfold piece. rewrite nlen_nfirstn; [reflexivity|]. rewrite nlen_nskipn. lia. }
  assert (list_eqb un [] = (username_end u =? scheme_end u + 3)) as Eun0.
  { destruct un as [|x r]; cbn [list_eqb].
    - change (nlen []) with 0 in Lun. lia.
    - rewrite nlen_cons in Lun. lia. }
  destruct (wf_userinfo_ok u W Ha) as [(U1 & U2 & U3)|[(U1 & U2 & U3)|(U1 & U2)]].
  - assert (has_password_b u = false) as Hp by (unfold has_password_b; rewrite U3; apply andb_false_r).
    rewrite Hp in Epw. subst pw. rewrite Eun0. cbn [opt_is_some]. lia.
  - assert (has_password_b u = true) as Hp.
    { unfold has_password_b. rewrite Ha, U1. pose proof (byte_eqb_lt _ _ _ U1).
      replace (username_end u =? nlen (ser u)) with false by lia. reflexivity. }
    rewrite Hp in Epw. subst pw. cbn [opt_is_some]. rewrite orb_true_r. lia.
  - assert (has_password_b u = false) as Hp.
    { unfold has_password_b. rewrite (byte_eqb_excl _ _ 64 58) by (try lia; exact U1). apply andb_false_r. }
    rewrite Hp in Epw. subst pw. rewrite Eun0. cbn [opt_is_some]. rewrite orb_false_r.
    destruct (username_end u =? scheme_end u + 3) eqn:E.
    + apply N.eqb_eq in E. rewrite (T E) in U1. discriminate U1.
    + cbn [negb]. lia.
Qed.

Lemma opt_is_some_pw_opt p : opt_is_some (pw_opt p) = negb (list_eqb p []).
Proof. destruct p; reflexivity. Qed.

(* related records are tight *)
Lemma corr_tight dbg shs u su : corr dbg shs u su -> has_host u = true -> tight u.
Proof.
  intros C Hh Heq. pose proof (co_wf _ _ _ _ C) as W.
  pose proof (has_host_authority u W Hh) as Ha.
  destruct (byte_eqb (ser u) (username_end u) 64) eqn:B; [exfalso|reflexivity].
  destruct (co_ht _ _ _ _ C Hh) as (T1 & T2 & T3).
  destruct (wf_userinfo_ok u W Ha) as [(U1 & U2 & U3)|[(U1 & U2 & U3)|(U1 & U2)]].
  - rewrite U1 in B. congruence.
  - rewrite (byte_eqb_excl _ _ 64 58) in U1 by (try lia; exact B). discriminate U1.
  - (* "//@host": the '@' is there but both credentials are empty *)
    pose proof (co_at _ _ _ _ C) as At. rewrite Ha in At.
    replace (username_end u =? host_start u) with false in At by lia. cbn [andb negb] in At.
    pose proof (co_user _ _ _ _ C) as Eun. rewrite (username_eval dbg u W) in Eun. injection Eun as Eun.
    cbn [pidx] in Eun. rewrite Ha, Heq, piece_empty in Eun.
    pose proof (co_pass _ _ _ _ C) as Epw. rewrite (password_piece dbg u W) in Epw. injection Epw as Epw.
    assert (has_password_b u = false) as Hp.
    { unfold has_password_b. rewrite (byte_eqb_excl _ _ 64 58) by (try lia; exact B). apply andb_false_r. }
    rewrite Hp in Epw. unfold includes_credentials in At. rewrite <- Eun in At.
    destruct (su_password su); [discriminate At | discriminate Epw].
Qed.

(* Url::set_username keeps the layout tight *)
Definition un_choice (new_empty : bool) (s after_username : list N) (removed0 new_ue : N) : list N * N * N :=
  match new_empty, after_username with
  | true, 64 :: rest => (s ++ rest, removed0 + 1, new_ue)
  | false, 64 :: _ => (s ++ after_username, removed0, new_ue)
  | _, 58 :: _ => (s ++ after_username, removed0, new_ue)
  | true, _ => (s ++ after_username, removed0, new_ue)
  | false, _ => (s ++ [64] ++ after_username, removed0, new_ue + 1)
  end.

Lemma un_choice_tail ne s after r0 nue :
  exists tail, fst (fst (un_choice ne s after r0 nue)) = s ++ tail
    /\ (ne = true -> (exists rest, after = 64 :: rest /\ tail = rest)
                     \/ (tail = after /\ forall rest, after <> 64 :: rest)).
Proof.
  destruct ne.
  - destruct after as [|c r].
    + exists []. split; [reflexivity|]. intros _. right. split; [reflexivity | intros rest X; discriminate X].
    + destruct c as [|p].
      * eexists. split; [reflexivity|]. intros _. right. split; [reflexivity | intros rest X; discriminate X].
      * do 7 (try destruct p as [p|p|]);
          (eexists; split; [reflexivity|]; intros _;
           first [ right; split; [reflexivity | intros rest X; discriminate X]
                 | left; eexists; split; reflexivity ]).
  - destruct after as [|c r].
    + eexists. split; [reflexivity | discriminate].
    + destruct c as [|p].
      * eexists. split; [reflexivity | discriminate].
      * do 7 (try destruct p as [p|p|]); (eexists; split; [reflexivity | discriminate]).
Qed.

Lemma byte_at_app_end s tail c : byte_eqb (s ++ tail) (nlen s) c = byte_eqb tail 0 c.
Proof. unfold byte_eqb. rewrite nnth_app_ge by lia. rewrite N.sub_diag. reflexivity. Qed.

Section Tight.
Variable dbg : bool.

Lemma set_username_tight u un u' : wf_b u = true -> host_text_ok u ->
  Setters.set_username dbg u un = Some (u', SOk) -> tight u -> tight u'.
Proof.
  intros W HT H T. unfold Setters.set_username in H.
  destruct (chcp_eval u W) as (c & Ec & Hc). rewrite Ec in H. cbn [bindo] in H.
  destruct c; [discriminate H|]. specialize (Hc eq_refl).
  pose proof (has_host_authority u W Hc) as Ha. pose proof (wf_auth_facts u W Ha) as F.
  pose proof (af_ue F); pose proof (af_hs F); pose proof (af_he F); pose proof (af_ps F); pose proof (af_len F).
  destruct (HT Hc) as (T1 & T2 & T3).
  at_step H. at_step H. at_step H.
  { inversion H; subst u'. exact T. }
  at_step H.
  set (s := push_encoded T_USERINFO (truncate (ser u) (scheme_end u + 3)) un) in *.
  assert (l0 = nskipn (username_end u) (ser u)) as El.
  { unfold u_slice_from in E2. rewrite slice_from_o_some in E2 by lia. congruence. }
  pose proof (un_choice_tail (nlen s =? scheme_end u + 3) s l0 (username_end u) (nlen s)) as K.
  at_step H. at_step H.
  assert (un_choice (nlen s =? scheme_end u + 3) s l0 (username_end u) (nlen s) = (l1, n0, n)) as E3' by exact E3.
  rewrite E3' in K. cbn [fst] in K.
  destruct K as (tail & K1 & K2). subst l1.
  at_step H. at_step H. at_step H. at_step H. at_step H.
  inversion H; subst u'; clear H.
  unfold tight. cbn [username_end scheme_end ser]. intros Heq.
  rewrite byte_at_app_end.
  apply N.eqb_eq in Heq. destruct (K2 Heq) as [(rest & Ka & ->)|(-> & Kb)].
  - (* the old username was followed by '@': the new text continues with the host *)
    assert (nnth (ser u) (username_end u) = Some 64) as B64.
    { rewrite <- (N.add_0_r (username_end u)), <- nnth_nskipn, <- El, Ka. reflexivity. }
    apply byte_eqb_true_iff in B64.
    assert (rest = nskipn (host_start u) (ser u)) as ->.
    { destruct (wf_userinfo_ok u W Ha) as [(U1 & U2 & U3)|[(U1 & U2 & U3)|(U1 & U2)]].
      - rewrite U1 in B64. congruence.
      - rewrite (byte_eqb_excl _ _ 64 58) in U1 by (try lia; exact B64). discriminate U1.
      - apply byte_eqb_true_iff in B64. rewrite (nskipn_cons_of_nnth _ _ _ B64) in El. rewrite U2.
        rewrite El in Ka. congruence. }
    unfold byte_eqb. rewrite nnth_nskipn, N.add_0_r. exact T3.
  - (* no '@' follows *)
    unfold byte_eqb. destruct l0 as [|c0 r0]; [reflexivity|]. cbn [nnth N.to_nat nth_error].
    destruct (c0 =? 64) eqn:E64; [|reflexivity]. apply N.eqb_eq in E64. subst c0.
    exfalso. exact (Kb r0 eq_refl).
Qed.

Lemma set_password_tight u pw u' : wf_b u = true -> host_text_ok u ->
  Setters.set_password dbg u pw = Some (u', SOk) -> tight u -> tight u'.
Proof.
  intros W HT H T. unfold Setters.set_password in H.
  destruct (chcp_eval u W) as (c & Ec & Hc). rewrite Ec in H. cbn [bindo] in H.
  destruct c; [discriminate H|]. specialize (Hc eq_refl).
  pose proof (has_host_authority u W Hc) as Ha. pose proof (wf_auth_facts u W Ha) as F.
  pose proof (af_ue F); pose proof (af_hs F); pose proof (af_he F); pose proof (af_ps F); pose proof (af_len F).
  destruct (HT Hc) as (T1 & T2 & T3).
  at_step H.
  - (* clear the password *)
    at_step H. at_step H; [|inversion H; subst u'; exact T].
    at_step H. at_step H. at_step H. at_step H. at_step H. at_step H. at_step H. at_step H.
    inversion H; subst u'; clear H.
    unfold tight. cbn [username_end scheme_end ser]. intros Heq.
    replace (scheme_end u + 3 =? username_end u) with true by lia.
    rewrite <- (nlen_nfirstn (username_end u) (ser u)) at 2 by lia.
    rewrite byte_at_app_end. unfold byte_eqb. rewrite nnth_nskipn, N.add_0_r. exact T3.
  - (* set a password: a ':' is written at username_end *)
    at_step H. at_step H. at_step H. at_step H. at_step H.
    inversion H; subst u'; clear H.
    unfold tight. cbn [username_end scheme_end ser]. intros _.
    unfold push_encoded, truncate. rewrite <- !app_assoc.
    rewrite <- (nlen_nfirstn (username_end u) (ser u)) at 2 by lia.
    rewrite byte_at_app_end. reflexivity.
Qed.

(* with "can have credentials" the two mutators report Ok *)
Lemma set_username_status u un u' st : cannot_have_credentials_or_port u = Some false ->
  Setters.set_username dbg u un = Some (u', st) -> st = SOk.
Proof.
  intros Ec H. unfold Setters.set_username in H. rewrite Ec in H. cbn [bindo] in H.
  repeat (at_step H; try reflexivity).
Qed.

Lemma set_password_status u pw u' st : cannot_have_credentials_or_port u = Some false ->
  Setters.set_password dbg u pw = Some (u', st) -> st = SOk.
Proof.
  intros Ec H. unfold Setters.set_password in H. rewrite Ec in H. cbn [bindo] in H.
  repeat (at_step H; try reflexivity).
Qed.

End Tight.

Lemma userinfo_bridge v : usv_list v -> userinfo_enc v = upe in_userinfo_set v.
Proof. intros H. unfold userinfo_enc. apply (pe_display_bridge T_USERINFO in_userinfo_set v rel_USERINFO H). Qed.

Lemma upe_cp_nonempty inset c : utf8_percent_encode_cp inset c <> [].
Proof.
  unfold utf8_percent_encode_cp. destruct (inset c); [|discriminate].
  unfold utf8_encode. cbn [flat_map]. rewrite app_nil_r. unfold utf8_encode1.
  destruct (c <? 128); [discriminate|]. destruct (c <? 2048); [discriminate|]. destruct (c <? 65536); discriminate.
Qed.

Lemma upe_nonempty inset c r : upe inset (c :: r) <> [].
Proof.
  rewrite upe_cons. intros H. apply app_eq_nil in H. destruct H as [H _]. exact (upe_cp_nonempty inset c H).
Qed.

Lemma upe_userinfo_clean v : usv_list v -> clean T_USERINFO (upe in_userinfo_set v) = true.
Proof.
  intros H. unfold upe. rewrite <- (enc_bridge T_USERINFO in_userinfo_set v rel_USERINFO).
  apply encode_is_clean; [exact stable_USERINFO | apply utf8_encode_bytes; exact H].
Qed.

Section Cred.
Variable dbg : bool.
Variable shp : bool -> list N -> option spec_host.
Variable shs : spec_host -> list N.

Notation corr := (corr dbg shs).

(* a change of the credentials of a URL with a host: the relation from the read-backs *)
Lemma corr_cred u su u' su' : corr u su -> has_host u = true ->
  wf_b u' = true -> host_text_ok u' -> tight u' ->
  scheme u' = scheme u -> host_str u' = host_str u -> port u' = su_port su' -> same_back dbg u u' ->
  su_scheme su' = su_scheme su -> su_host su' = su_host su ->
  su_path su' = su_path su -> su_query su' = su_query su -> su_fragment su' = su_fragment su ->
  username dbg u' = Some (su_username su') -> password dbg u' = Some (pw_opt (su_password su')) ->
  clean T_USERINFO (su_username su') = true ->
  corr u' su'.
Proof.
  intros C Hh W' HT' T' F1 F4 F5 (B1 & B2 & B3) S1 S4 S6 S7 S8 Eun' Epw' Ec'.
  pose proof (co_wf _ _ _ _ C) as W.
  assert (has_host u' = true) as Hh'.
  { rewrite (host_str_eval u' W'), (host_str_eval u W), Hh in F4. destruct (has_host u'); [reflexivity | discriminate F4]. }
  pose proof (has_host_authority u W Hh) as Ha. pose proof (has_host_authority u' W' Hh') as Ha'.
  pose proof (co_auth _ _ _ _ C) as Ea. rewrite Ha in Ea.
  constructor.
  - exact W'.
  - exact HT'.
  - rewrite F1, S1. exact (co_scheme _ _ _ _ C).
  - exact Eun'.
  - exact Epw'.
  - rewrite F4, S4. exact (co_host _ _ _ _ C).
  - rewrite Hh', S4, <- Hh. exact (co_hh _ _ _ _ C).
  - rewrite Ha', S4. exact Ea.
  - rewrite Ha'. cbn [andb].
    rewrite (at_flag_by_accessors dbg u' _ _ W' Ha' T' Eun' Epw'), opt_is_some_pw_opt. reflexivity.
  - exact F5.
  - rewrite B1. unfold serialize_path. rewrite S6. exact (co_path _ _ _ _ C).
  - rewrite B2, S7. exact (co_query _ _ _ _ C).
  - rewrite B3, S8. exact (co_frag _ _ _ _ C).
  - rewrite Ha'. unfold spec_marker. rewrite S4. destruct (su_host su); [reflexivity | discriminate Ea].
  - pose proof (co_opaque _ _ _ _ C) as Eo. pose proof (co_path _ _ _ _ C) as Ept.
    rewrite (is_opaque_by_path u _ W Ept), Ha in Eo. cbn [negb andb] in Eo.
    assert (path u' = Some (serialize_path su)) as Ept' by (rewrite B1; exact Ept).
    rewrite (is_opaque_by_path u' _ W' Ept'), Ha'. cbn [negb andb]. unfold has_opaque_path in *. rewrite S6. exact Eo.
  - exact Ec'.
Qed.

Theorem username_step u su v : corr u su -> usv_list v ->
  exists u' su', option_map fst (q_set_username dbg u v) = Some u' /\ spec_step shp QUsername su v = Some su'
    /\ corr u' su'.
Proof.
  intros C Hv. pose proof (co_wf _ _ _ _ C) as W. pose proof (co_ht _ _ _ _ C) as HT.
  unfold q_set_username, spec_step. cbn [setter_of_q spec_set].
  pose proof (corr_cannot_have dbg shs u su C) as Ech.
  destruct (set_username_ok dbg u v W HT) as (u' & st & E & Hne & Hok). rewrite E. cbn [option_map fst].
  exists u'. destruct (cannot_have_username_password_port su) eqn:Ecs.
  - exists su. split; [reflexivity|]. split; [reflexivity|].
    assert (Setters.set_username dbg u v = Some (u, SErrUnit)) as E' by (apply set_username_errunit; auto).
    rewrite E in E'. inversion E'; subst. exact C.
  - eexists. split; [reflexivity|]. split; [reflexivity|].
    pose proof (set_username_status dbg u v u' st Ech E) as ->.
    destruct (chcp_eval u W) as (c & Ec & Hc). rewrite Ech in Ec. inversion Ec; subst c. specialize (Hc eq_refl).
    destruct (Hok eq_refl) as (W' & HT' & F1 & F3 & F4 & F5 & SB & cur & Ecur & Eun').
    apply (corr_cred u su u' _ C Hc W' HT'); cbn [Whatwg.set_username su_scheme su_username su_password su_host su_port su_path su_query su_fragment];
      try assumption; try reflexivity.
    + exact (set_username_tight dbg u v u' W HT E (corr_tight dbg shs u su C Hc)).
    + rewrite F5. exact (co_port _ _ _ _ C).
    + rewrite Eun'. f_equal. rewrite (co_user _ _ _ _ C) in Ecur. injection Ecur as Ecur. subst cur.
      destruct (list_eqb (su_username su) (utf8_encode v)) eqn:Eeq; [|exact (userinfo_bridge v Hv)].
      apply list_eqb_spec in Eeq. unfold upe.
      rewrite <- (enc_bridge T_USERINFO in_userinfo_set v rel_USERINFO), <- Eeq.
      symmetry. apply encode_clean. exact (co_uclean _ _ _ _ C).
    + rewrite F3. exact (co_pass _ _ _ _ C).
    + exact (upe_userinfo_clean v Hv).
Qed.

Theorem password_step u su v : corr u su -> usv_list v ->
  exists u' su', option_map fst (q_set_password dbg u v) = Some u' /\ spec_step shp QPassword su v = Some su'
    /\ corr u' su'.
Proof.
  intros C Hv. pose proof (co_wf _ _ _ _ C) as W. pose proof (co_ht _ _ _ _ C) as HT.
  unfold q_set_password, spec_step. cbn [setter_of_q spec_set].
  pose proof (corr_cannot_have dbg shs u su C) as Ech.
  set (pw := match v with [] => None | _ :: _ => Some v end).
  destruct (set_password_ok dbg u pw W HT) as (u' & st & E & Hne & Hok). rewrite E. cbn [option_map fst].
  exists u'. destruct (cannot_have_username_password_port su) eqn:Ecs.
  - exists su. split; [reflexivity|]. split; [reflexivity|].
    assert (Setters.set_password dbg u pw = Some (u, SErrUnit)) as E' by (apply set_password_errunit; auto).
    rewrite E in E'. inversion E'; subst. exact C.
  - eexists. split; [reflexivity|]. split; [reflexivity|].
    pose proof (set_password_status dbg u pw u' st Ech E) as ->.
    destruct (chcp_eval u W) as (c & Ec & Hc). rewrite Ech in Ec. inversion Ec; subst c. specialize (Hc eq_refl).
    destruct (Hok eq_refl) as (W' & HT' & F1 & F2 & F4 & F5 & SB & Epw').
    apply (corr_cred u su u' _ C Hc W' HT'); cbn [Whatwg.set_password su_scheme su_username su_password su_host su_port su_path su_query su_fragment];
      try assumption; try reflexivity.
    + exact (set_password_tight dbg u pw u' W HT E (corr_tight dbg shs u su C Hc)).
    + rewrite F5. exact (co_port _ _ _ _ C).
    + rewrite F2. exact (co_user _ _ _ _ C).
    + rewrite Epw'. f_equal. subst pw. destruct v as [|c r]; [reflexivity|].
      rewrite (userinfo_bridge (c :: r) Hv).
      change (utf8_percent_encode in_userinfo_set (c :: r)) with (upe in_userinfo_set (c :: r)).
      destruct (upe in_userinfo_set (c :: r)) eqn:Eu; [exfalso; exact (upe_nonempty _ _ _ Eu) | reflexivity].
    + exact (co_uclean _ _ _ _ C).
Qed.

End Cred.
