(* Proofs/C06_SpliceMore.v - (1) state-level path agreement on EVERY non-opaque layout (authority, '/'-led path
   without authority, '/.' marker) in one statement; (2) the exclusions of the whole-URL theorems for set_path and
   set_host(Some) are exact: witnesses where the argument leaves the class and Parser::parse_url on the spliced text
   does NOT return the setter's record. *)
From Coq Require Import String.
From RU Require Import Base.Prelude Base.Utf8 Model.AsciiSet Gen.Tables Model.PercentEncoding Model.HostT Model.UrlRecord
  Model.Parser Model.Setters Model.WF Proofs.ListN Proofs.C03_WF Proofs.C06_List Proofs.C06_WFI Proofs.C06_Suffix Proofs.C06_PathParser
  Proofs.C06_Path Proofs.C02_Enc Proofs.C02_Parts Proofs.C02_Reach Proofs.C02_AuthParts Proofs.C02_Auth
  Proofs.C02_AuthMain Proofs.C02_Canon Proofs.C06_Quirks Proofs.C06_Agree Proofs.C06_AgreeSet Proofs.C06_Splice Proofs.C06_SpliceAuth Proofs.C06_SpliceCred
  Proofs.C06_SpliceEx Proofs.C06_SplicePath Proofs.C06_SpliceHost.
Open Scope N_scope.
Open Scope list_scope.

(* (1) *)
(* u is not opaque (the byte behind "scheme:" is '/'): authority, '/'-led path, or marker.  The record the setter
   returns is with_path u P (the old record with P in the path position, offsets behind it shifted), and the
   parser's path-start state in context UrlParser on p X behind the old front writes exactly P and hands X on. *)
Theorem agree_path_layouts dbg u p u' : wf_b u = true -> byte_eqb (ser u) (scheme_end u + 1) 47 = true ->
  usv_list p -> auth_end_ok u -> forallb no_qh p = true -> match p with c :: _ => is_tnl c = false | [] => True end ->
  set_path dbg u p = Some u' ->
  exists P, u' = with_path u P /\ new_path_ok P
    /\ forall X, C06_Agree.qh_tail X ->
         exists hh, parse_path_start dbg CUrlParser (stype u) true (nfirstn (path_start u) (ser u)) (p ++ X)
                    = POk (nfirstn (path_start u) (ser u) ++ P, hh, X).
Proof.
  intros W Hsl Hp He Hq H1 E.
  destruct (set_path_eval dbg u p u' W Hsl Hp He E) as (P & hh & rem & Eu & HP & Hps).
  exists P. split; [exact Eu|]. split; [exact HP|]. intros X HX. exists hh.
  unfold stype. rewrite (path_start_ctx dbg _ true _ p X Hq HX H1). rewrite Hps. reflexivity.
Qed.

(* (2) *)
Definition parse_differs (r : option url) (spliced : list N) : Prop :=
  exists u', r = Some u' /\ parse_url true ex_hp ex_hp ex_hd None None spliced <> POk u'.

(* on "a://h:80/p?q#f" (canonical, with an authority; host functions ex_hp / ex_hd):
   - set_path("x"): not '/'-led; the setter gives "a://h:80/x?q#f", the spliced text "a://h:80x?q#f" does not parse;
   - set_path("/a?b"): a '?' in the argument; the setter gives "a://h:80/a%3Fb?q#f", the spliced text reads the query "b?q";
   - set_host(Some "x:81"): the setter ignores the port part ("a://x:80/p?q#f"), the spliced text "a://x:81:80/p?q#f" does not parse;
   - set_host(Some ""): the empty host on a URL with a port (F-C02-4): "a://:80/p?q#f" does not parse *)
Lemma splice_exclusions_refuted :
  Canon ex_hp ex_hp ex_hd qx_u /\ has_authority_b qx_u = true
  /\ parse_differs (set_path true qx_u (B "x")) (splice_path qx_u (B "x")) /\ ~ path_arg_ok (sp_of qx_u) (B "x")
  /\ parse_differs (set_path true qx_u (B "/a?b")) (splice_path qx_u (B "/a?b")) /\ forallb no_qh (B "/a?b") = false
  /\ parse_differs (ok_of (set_host true ex_hp ex_hp ex_hd qx_u (Some (B "x:81")))) (splice_host qx_u (B "x:81"))
  /\ forallb (hostarg (sp_of qx_u)) (B "x:81") = false
  /\ parse_differs (ok_of (set_host true ex_hp ex_hp ex_hd qx_u (Some []))) (splice_host qx_u [])
  /\ (exists u', set_host true ex_hp ex_hp ex_hd qx_u (Some []) = Some (u', SOk) /\ ~ empty_host_ok qx_u u').
Proof.
  split; [exact (proj1 splice_canon_examples)|]. split; [vm_compute; reflexivity|].
  split; [eexists; split; [vm_compute; reflexivity | vm_compute; discriminate]|].
  split; [intros H; vm_compute in H; discriminate H|].
  split; [eexists; split; [vm_compute; reflexivity | vm_compute; discriminate]|].
  split; [vm_compute; reflexivity|].
  split; [eexists; split; [vm_compute; reflexivity | vm_compute; discriminate]|].
  split; [vm_compute; reflexivity|].
  split; [eexists; split; [vm_compute; reflexivity | vm_compute; discriminate]|].
  eexists. split; [vm_compute; reflexivity|]. intros H. destruct (H eq_refl) as (_ & _ & H3). vm_compute in H3. discriminate H3.
Qed.
