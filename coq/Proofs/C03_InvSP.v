(* Proofs/C03_InvSP.v - "a special scheme implies that the byte at path_start is '/'", part A (the parser).
     path_sl u : the byte of the serialization at path_start is '/';      SP u : special scheme -> path_sl u.
   (PathSegmentsMut::new asserts it in debug builds: C04_SetPath.psm_assert_fails; wf_b does not carry it - "http://h" with
   an empty path is wf_b.)  Every record Parser::parse_url returns satisfies SP, from a base that is well-formed and
   satisfies AS (special => "://") and SP - any input, any override, both builds, the file scheme included; hypothesis
   HostWf (the Display text of a host of a special URL does not end in '/').  By the arms of C03_ReachFile.parse_arm:
     the authority state : parse_path_start pushes '/' for a special scheme (the text in front does not end in '/');
     a kept front        : the path of the base is kept, or popped and extended behind its first '/' by the path state;
     file states         : the file fix-up of the path state always leaves a '/' at path_start. *)
From RU Require Import Base.Prelude Model.HostT Model.UrlRecord Model.Parser Model.WF Proofs.ListN
  Proofs.C06_List Proofs.C03_WF Proofs.C06_WFI Proofs.C06_Tail Proofs.C06_FragQuery Proofs.C04_PathTotal
  Proofs.C04_ParseTotal Proofs.C03_ReachParts Proofs.C03_Reach Proofs.C03_ReachFile Proofs.C05_Parser
  Proofs.C05_PathClean Proofs.C05_AuthOfs Proofs.C05_HostText Proofs.C05_PathSpParse Proofs.C03_ParseFront
  Proofs.C04_SetPath Proofs.C05_ParseArms.
Open Scope N_scope.
Open Scope list_scope.

Definition path_sl (u : url) : Prop := nnth (ser u) (path_start u) = Some 47.
Definition SP (u : url) : Prop := spb u = true -> path_sl u.

Lemma path_sl_nonempty u : wf_b u = true -> path_sl u -> path_start u < path_end u.
Proof. intros W H. apply (slash_in_path u W). apply byte_eqb_true_iff. exact H. Qed.

Lemma forallb_pq_no_qh l : forallb pq l = true -> forallb no_qh l = true.
Proof.
  induction l as [|c r IH]; [reflexivity|]. cbn [forallb]. intros H. apply andb_true_iff in H. destruct H as [H1 H2].
  rewrite (pq_no_qh c H1), (IH H2). reflexivity.
Qed.

(* with_query_and_fragment behind an authority *)
Lemma wqf_sl ovr st se ue hs he hi pt ps s rem u :
  with_query_and_fragment ovr CUrlParser st se ue hs he hi pt ps s rem = POk u ->
  se + 3 <= ps -> nnth s (se + 2) = Some 47 -> nnth s ps = Some 47 -> path_sl u.
Proof.
  intros H L B2 B.
  destruct (with_query_and_fragment_steps ovr _ _ _ _ _ _ _ _ _ _ _ _ H) as (s1 & ps1 & s2 & qs & fs & M & Hq & ->).
  destruct (marker_fix_auth _ _ _ _ _ M L B2) as [-> ->]. destruct (pqf_shape _ _ _ _ _ _ _ _ Hq) as (q & f & -> & _).
  unfold path_sl. cbn [ser path_start]. rewrite nnth_app_lt by exact (nnth_lt _ _ _ B). exact B.
Qed.

(* a record that keeps the serialization of the base up to the end of its path, with the same path_start *)
Lemma keep_sl b u : wf_b b = true -> agree_pre (path_end b) (ser b) (ser u) -> path_start u = path_start b ->
  path_sl b -> path_sl u.
Proof.
  intros W Hpre E1 H. pose proof (path_sl_nonempty b W H) as L. unfold path_sl in *. rewrite E1.
  rewrite (pre_nnth _ _ _ _ Hpre L). exact H.
Qed.

Section Arms.
Variable dbg : bool.
Variable hp hpo : list N -> result host.
Variable hd : host -> list N.
Variable ovr : option (list N -> list N).
Hypothesis HW : HostWf hp hpo hd.

Theorem ads_sl st se ser0 l u : st_is_special st = true -> st_is_file st = false -> nlen ser0 = se + 1 ->
  after_double_slash dbg hp hpo hd ovr CUrlParser st se ser0 l = POk u -> path_sl u.
Proof using HW.
  intros Hsp Hnf L0 H.
  destruct (ads_shape hp hpo hd HW dbg ovr st se ser0 l u Hnf L0 H)
    as (x & ue & h & pt & s3 & rem & _ & _ & _ & _ & _ & _ & C & _ & L1 & B2 & Hw).
  cbv zeta in *. apply (wqf_sl _ _ _ _ _ _ _ _ _ _ _ _ Hw); [rewrite nlen_app; lia | exact B2 | exact (C Hsp)].
Qed.

(* a new path behind the front of the base *)
Lemma base_path_sl st b s rem u : wf_b b = true -> AO b -> agree_pre (path_start b) (ser b) s ->
  nnth s (path_start b) = Some 47 ->
  with_query_and_fragment ovr CUrlParser st (scheme_end b) (username_end b) (host_start b) (host_end b)
    (hosti b) (port b) (path_start b) s rem = POk u -> path_sl u.
Proof using.
  intros W A Hpre H47 H. pose proof (wf_ao_auth b W A) as Ha. pose proof (wf_auth_facts b W Ha) as F.
  pose proof (af_ue F); pose proof (af_hs F); pose proof (af_he F); pose proof (af_ps F).
  apply (wqf_sl _ _ _ _ _ _ _ _ _ _ _ _ H); [lia | | exact H47].
  rewrite (pre_nnth _ _ _ _ Hpre) by lia.
  pose proof Ha as Ha'. unfold has_authority_b in Ha'. apply css_bytes in Ha'. exact (proj2 (proj2 Ha')).
Qed.

(* a reference that keeps the front of the base *)
Lemma base_arm_sl b u : wf_b b = true -> AO b -> path_sl b -> base_arm ovr b u -> path_sl u.
Proof using.
  intros W A Hb [-> | st se l s qs fs Hq -> | l H | st s rem Hpre C _ H].
  - destruct (bf_path_end b W) as (P & _ & _). apply (keep_sl b _ W); [exact P | reflexivity | exact Hb].
  - destruct (bq_shape b W) as (Ebq & P1 & P2). destruct (pqf_shape _ _ _ _ _ _ _ _ Hq) as (q & f & -> & _).
    apply (keep_sl b _ W); [|reflexivity|exact Hb]. cbn [ser url_with]. rewrite Ebq. apply agree_pre_nfirstn. exact P2.
  - revert H. unfold fragment_only. cbv zeta. intros Hf. pb Hf fs Hfs. inversion Hf; subst u.
    destruct (bf_path_end b W) as (P & B & _). apply (keep_sl b _ W); [|reflexivity|exact Hb].
    cbn [ser]. rewrite parse_fragment_text, <- app_assoc.
    eapply agree_pre_trans; [exact P | apply agree_pre_app_le; exact B].
  - exact (base_path_sl st b s rem u W A Hpre C H).
Qed.

Theorem parse_arm_sp base u : match base with Some b => wf_b b = true /\ AS b /\ SP b | None => True end ->
  parse_arm dbg hp hpo hd ovr base u -> SP u.
Proof using HW.
  intros Hb [st se ser0 l Hs Hnf Est H | se ser0 s rem Hs Est A L _ H | b -> B | st s he hi t rem s4 qs fs _ _ C _ Hq ->];
    intros Hsp; unfold spb in Hsp.
  - pose proof (proj2 (proj2 (proj2 (proj2 Hs)))) as L0.
    rewrite (proj1 (ads_fd dbg hp hpo hd ovr HW True st se ser0 l u L0 Hnf Est H)), Est in Hsp.
    exact (ads_sl st se ser0 l u Hsp Hnf L0 H).
  - rewrite (proj1 (no_authority_front ovr se ser0 s rem u (proj2 (proj2 (proj2 (proj2 Hs)))) A L H)), Est in Hsp.
    discriminate Hsp.
  - destruct Hb as (W & Ab & Kb). rewrite (proj1 (base_arm_same_fd ovr b u W B)) in Hsp.
    exact (base_arm_sl b u W (Ab Hsp) (Kb Hsp) B).
  - destruct (pqf_shape _ _ _ _ _ _ _ _ Hq) as (q & f & -> & _).
    unfold path_sl, file_url. cbn [ser path_start]. rewrite nnth_app_lt by exact (nnth_lt _ _ _ C). exact C.
Qed.

Theorem parse_url_sp base input u :
  match base with Some b => wf_b b = true /\ AS b /\ SP b | None => True end ->
  parse_url dbg hp hpo hd ovr base input = POk u -> SP u.
Proof using HW.
  intros Hb H. apply (parse_arm_sp base u Hb), (parse_url_arm dbg hp hpo hd ovr HW base input u); [|exact H].
  destruct base as [b|]; [|exact I]. destruct Hb as (W & A & _). exact (as_base_ok b W A).
Qed.

End Arms.

(* from a base with inv03 *)
Theorem parse_url_sp_inv dbg hp hpo hd ovr base input u : HostWf hp hpo hd ->
  match base with Some b => inv03 b /\ SP b | None => True end ->
  parse_url dbg hp hpo hd ovr base input = POk u -> SP u.
Proof.
  intros HW Hb Hp. apply (parse_url_sp dbg hp hpo hd ovr HW base input u); [|exact Hp].
  destruct base as [b|]; [|exact I]. destruct Hb as (([Wb Tb] & Ab & _) & Kb).
  split; [exact Wb|]. split; [exact Ab | exact Kb].
Qed.
