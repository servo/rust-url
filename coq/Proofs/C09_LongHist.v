(* Proofs/C09_LongHist.v - the agreement of Proofs/C09_LongRun.v lifted to histories of mutators.

   Three mutators call Host::parse: Url::set_host, quirks::set_host, quirks::set_hostname (the last two through
   Parser::parse_host).  Each returns the URL unchanged when the host is refused.  So a step with the capped oracle
   is the step with the oracle itself, or leaves the URL as it was (at the host whose oracle answer is in the class):
   the histories of the capped model are the histories of the model on which no oracle answer is in the class, and
   every URL reachable with the capped oracle is reachable with the oracle itself.

   Likewise the histories ReachC of Proofs/C02_ReachPartial.v (whose steps do not call Host::parse) run with the capped
   oracle are ReachC histories of the model itself. *)
From RU Require Import Base.Prelude Base.Utf8 Model.HostT Model.Host Model.UrlRecord Model.Parser Model.Setters
  Model.WF Proofs.C09_Host Proofs.C09_Long Proofs.C09_LongRun Proofs.C02_Reach Proofs.C02_HistInst
  Proofs.C02_ReachPartial Proofs.Inst_Host.

Section StepLift.
Variable dbg : bool.
Variable hp1 hp2 hpo : list N -> result host.
Variable hd : host -> list N.
Variable E : parse_error.
Hypothesis HP : forall s, hp1 s = hp2 s \/ hp1 s = Err E.

Lemma set_host_or u h :
  set_host dbg hp1 hpo hd u h = set_host dbg hp2 hpo hd u h \/ set_host dbg hp1 hpo hd u h = Some (u, SErr E).
Proof.
  unfold set_host. destruct (cannot_be_a_base u) as [[|]|]; cbn [bindo]; try (left; reflexivity).
  destruct (u_scheme_type u) as [st|]; cbn [bindo]; [|left; reflexivity].
  destruct h as [hs|]; [|left; reflexivity].
  destruct ((match hs with [] => true | _ :: _ => false end) && st_is_special st && negb (st_is_file st)); [left; reflexivity|].
  match goal with |- context [match ?s with Some hsub => _ | None => Some (u, SErr InvalidDomainCharacter) end] =>
    destruct s as [hsub|] end; [|left; reflexivity].
  destruct (st_is_special st); [|left; reflexivity].
  destruct (HP hsub) as [->| ->]; [left | right]; reflexivity.
Qed.

Lemma pres_ok_or {A} (a b : pres A) : pres_or E a b -> pres_ok a = pres_ok b \/ pres_ok a = Some None.
Proof. intros [->| ->]; [left | right]; reflexivity. Qed.

Lemma q_set_host_or u v :
  q_set_host dbg hp1 hpo hd u v = q_set_host dbg hp2 hpo hd u v \/ q_set_host dbg hp1 hpo hd u v = Some (u, SErrUnit).
Proof.
  unfold q_set_host. destruct (cannot_be_a_base u) as [[|]|]; cbn [bindo]; try (left; reflexivity).
  destruct (scheme u) as [sc|]; cbn [bindo]; [|left; reflexivity].
  destruct (scheme_type_eqb (scheme_type_of sc) STFile && match v with [] => true | _ :: _ => false end); [left; reflexivity|].
  destruct (pres_ok_or _ _ (parse_host_or hp1 hp2 hpo E HP (scheme_type_of sc) (input_new_no_trim v))) as [->| ->];
    [left | right]; reflexivity.
Qed.

Lemma q_set_hostname_or u v :
  q_set_hostname dbg hp1 hpo hd u v = q_set_hostname dbg hp2 hpo hd u v
  \/ q_set_hostname dbg hp1 hpo hd u v = Some (u, SErrUnit).
Proof.
  unfold q_set_hostname. destruct (cannot_be_a_base u) as [[|]|]; cbn [bindo]; try (left; reflexivity).
  destruct (scheme u) as [sc|]; cbn [bindo]; [|left; reflexivity].
  destruct (scheme_type_eqb (scheme_type_of sc) STFile && match v with [] => true | _ :: _ => false end); [left; reflexivity|].
  destruct (pres_ok_or _ _ (parse_host_or hp1 hp2 hpo E HP (scheme_type_of sc) (input_new_no_trim v))) as [->| ->];
    [left | right]; reflexivity.
Qed.

(* the operations of C05_History.v (status dropped) *)
Theorem apply_op5_or u o :
  C05_History.apply_op dbg hp1 hpo hd u o = C05_History.apply_op dbg hp2 hpo hd u o
  \/ C05_History.apply_op dbg hp1 hpo hd u o = Some u.
Proof.
  destruct o; cbn [C05_History.apply_op]; try (left; reflexivity).
  - destruct (set_host_or u h) as [->| ->]; [left | right]; reflexivity.
  - destruct (q_set_host_or u v) as [->| ->]; [left | right]; reflexivity.
  - destruct (q_set_hostname_or u v) as [->| ->]; [left | right]; reflexivity.
Qed.

(* the operations of C02_Reach.v *)
Theorem apply_op2_or u o :
  C02_Reach.apply_op dbg hp1 hpo hd u o = C02_Reach.apply_op dbg hp2 hpo hd u o
  \/ C02_Reach.apply_op dbg hp1 hpo hd u o = Some u.
Proof.
  destruct o; cbn [C02_Reach.apply_op]; try (left; reflexivity).
  - destruct (set_host_or u h) as [->| ->]; [left | right]; reflexivity.
  - destruct (q_set_host_or u s) as [->| ->]; [left | right]; reflexivity.
  - destruct (q_set_hostname_or u s) as [->| ->]; [left | right]; reflexivity.
Qed.
End StepLift.

Section Hist.
Variable dbg : bool.
Variable idna : list N -> option (list N).

Notation hp := (host_parse idna).
Notation hpc := (host_parse (cap idna)).
Notation hpo := host_parse_opaque.
Notation hd := host_display.

(* a step with the capped oracle is the step with the oracle itself, or leaves the URL unchanged *)
Theorem apply_op5_cap u o :
  C05_History.apply_op dbg hpc hpo hd u o = C05_History.apply_op dbg hp hpo hd u o
  \/ C05_History.apply_op dbg hpc hpo hd u o = Some u.
Proof. exact (apply_op5_or dbg hpc hp hpo hd IdnaError (cap_dichotomy idna) u o). Qed.

Theorem apply_op2_cap u o :
  C02_Reach.apply_op dbg hpc hpo hd u o = C02_Reach.apply_op dbg hp hpo hd u o
  \/ C02_Reach.apply_op dbg hpc hpo hd u o = Some u.
Proof. exact (apply_op2_or dbg hpc hp hpo hd IdnaError (cap_dichotomy idna) u o). Qed.

(* the per-step premise "no host of the step is in the class" *)
Definition step_clean (u : url) (o : C05_History.op) : Prop :=
  C05_History.apply_op dbg hpc hpo hd u o = C05_History.apply_op dbg hp hpo hd u o.

(* a step that does not use Host::parse is clean *)
Lemma step_clean_other u o :
  match o with C05_History.OSetHost _ | C05_History.OQHost _ | C05_History.OQHostname _ => False | _ => True end ->
  step_clean u o.
Proof. unfold step_clean. destruct o; intros H; try destruct H; reflexivity. Qed.

(* every URL reachable (parse, join, the 19 mutators) with the capped oracle is reachable with the oracle itself:
   the histories of the capped model ARE the clean histories of the model *)
Theorem ReachableM_cap u : ReachableM dbg (cap idna) u -> ReachableM dbg idna u.
Proof.
  induction 1 as [ovr input u Hp | ovr b input u Hb IH Hp | u o u' Hu IH Hv Ho].
  - exact (RM_parse dbg idna ovr input u (parse_url_cap_run dbg idna ovr None input u Hp)).
  - exact (RM_join dbg idna ovr b input u IH (parse_url_cap_run dbg idna ovr (Some b) input u Hp)).
  - destruct (apply_op5_cap u o) as [Ex|Ex]; rewrite Ex in Ho.
    + exact (RM_step dbg idna u o u' IH Hv Ho).
    + inversion Ho; subst. exact IH.
Qed.

(* the clean histories, explicitly: every parse / join is a clean run and every step a clean step *)
Inductive ReachableClean : url -> Prop :=
| RK_parse ovr input u : model_parse dbg idna ovr None input = POk u -> run_clean dbg idna ovr None input -> ReachableClean u
| RK_join ovr b input u : ReachableClean b -> model_parse dbg idna ovr (Some b) input = POk u ->
    run_clean dbg idna ovr (Some b) input -> ReachableClean u
| RK_step u o u' : ReachableClean u -> op_rust o -> C05_History.apply_op dbg hp hpo hd u o = Some u' -> step_clean u o ->
    ReachableClean u'.

Theorem ReachableClean_cap u : ReachableClean u -> ReachableM dbg (cap idna) u.
Proof.
  induction 1 as [ovr input u Hp C | ovr b input u Hb IH Hp C | u o u' Hu IH Hv Ho C].
  - exact (RM_parse dbg (cap idna) ovr input u (run_clean_ok dbg idna ovr None input u Hp C)).
  - exact (RM_join dbg (cap idna) ovr b input u IH (run_clean_ok dbg idna ovr (Some b) input u Hp C)).
  - unfold step_clean in C. rewrite <- C in Ho. exact (RM_step dbg (cap idna) u o u' IH Hv Ho).
Qed.

(* ReachC (C02_ReachPartial.v): parse without base on a non-file scheme, then set_fragment / set_query / set_port with
   arbitrary arguments and joins with an empty, fragment-only or query-led reference.  The steps do not call
   Host::parse; a ReachC history of the capped model is a ReachC history of the model whose first parse is clean *)
Theorem ReachC_cap u : ReachC dbg hpc hpo hd u -> ReachC dbg hp hpo hd u.
Proof.
  induction 1 as [ovr input u Hu Hn Hov Hp | ovr b input u Hr IH Hu Ht Hov Hp | u o u' Hr IH Ht Ha Ho Hb].
  - exact (RC_parse dbg hp hpo hd ovr input u Hu Hn Hov (parse_url_cap_run dbg idna ovr None input u Hp)).
  - exact (RC_join dbg hp hpo hd ovr b input u IH Hu Ht Hov (parse_url_cap_run dbg idna ovr (Some b) input u Hp)).
  - refine (RC_step dbg hp hpo hd u o u' IH Ht Ha _ Hb). destruct o; try discriminate Ht; exact Ho.
Qed.

End Hist.
