(* Proofs/C05_AuthParse.v - "a special scheme is followed by ://" (AS, Proofs/C05_AuthOfs.v), second half: the
   parser.  Every record parse_url returns satisfies AS, from a base that is well formed and satisfies AS; no
   hypothesis on the host functions, none on the input.  Only the offsets scheme_end / username_end are followed:
     with_query_and_fragment passes both through; after_double_slash sets username_end behind "scheme://";
     the relative-reference and file states copy both from the base or build "file://".
   With as_bk the premise `base_ok b` of the join steps is therefore an invariant. *)
From RU Require Import Base.Prelude Base.Utf8 Model.AsciiSet Gen.Tables Model.PercentEncoding
  Model.HostT Model.UrlRecord Model.Parser Model.Setters Model.WF
  Proofs.ListN Proofs.C06_List Proofs.C03_WF Proofs.C06_WFI Proofs.C06_Tail Proofs.C06_Steps
  Proofs.C06_Suffix Proofs.C06_FragQuery Proofs.C04_ParseTotal Proofs.C03_ReachParts
  Proofs.C05_Enc Proofs.C05_Parser Proofs.C05_Frag Proofs.C05_Comp Proofs.C05_PathClean Proofs.C05_ParseUI Proofs.C05_ParseArms Proofs.C05_BaseOk Proofs.C05_AuthOfs
  Proofs.C03_Reach Proofs.C03_ReachFile.

(* with_query_and_fragment passes the offsets and the host kind through *)
Lemma wqf_fields ovr ctx st se ue hs he hi pt ps s rem u :
  with_query_and_fragment ovr ctx st se ue hs he hi pt ps s rem = POk u ->
  scheme_end u = se /\ username_end u = ue /\ hosti u = hi.
Proof.
  intros H. destruct (with_query_and_fragment_steps ovr _ _ _ _ _ _ _ _ _ _ _ _ H) as (s1 & ps1 & s2 & qs & fs & _ & _ & ->).
  split; [reflexivity|]. split; reflexivity.
Qed.

Lemma ao_file_url s he hi qs fs : AO (file_url s 7 he hi qs fs).
Proof. unfold AO, file_url. cbn [scheme_end username_end]. lia. Qed.

Section Arms.
Variable dbg : bool.
Variable hp hpo : list N -> result host.
Variable hd : host -> list N.
Variable ovr : option (list N -> list N).

Lemma ads_ao ctx st se ser0 l u : nlen ser0 = se + 1 ->
  after_double_slash dbg hp hpo hd ovr ctx st se ser0 l = POk u -> scheme_end u = se /\ AO u.
Proof.
  intros L0 H0.
  destruct (after_double_slash_steps dbg hp hpo hd ovr _ _ _ _ _ _ H0)
    as (ser1 & ue & rm & ser2 & he & hi & pt & rm2 & s3 & hh & rm3 & Ha & Hb & Hc & H).
  destruct (parse_userinfo_ui _ _ _ _ _ _ Ha) as (un & t & _ & Eue & _).
  apply wqf_fields in H. destruct H as (E1 & E2 & _). split; [exact E1|].
  unfold AO. rewrite E1, E2, Eue, nlen_app, L0. change (nlen [47; 47]) with 2. lia.
Qed.

Theorem parse_relative_ao st b l u : wf_b b = true -> AO b ->
  parse_relative dbg hp hpo hd ovr CUrlParser st b l = POk u -> AO u.
Proof.
  intros W A H. destruct (wf_scheme_facts b W) as (S1 & S2 & S3).
  destruct (parse_relative_case dbg hp hpo hd ovr CUrlParser st b l u H)
    as [-> | s qs fs Hq -> | Hf | x Ha | r s hh rem _ Hw | s1 x s3 hh rem _ _ _ Hw].
  - exact A.
  - exact A.
  - unfold fragment_only in Hf. cbv zeta in Hf. pb Hf fs Hfs. inversion Hf; subst u. exact A.
  - refine (proj2 (ads_ao _ st _ _ x u _ Ha)). apply nlen_nfirstn. lia.
  - apply wqf_fields in Hw. destruct Hw as (E1 & E2 & _). unfold AO in *. rewrite E1, E2. exact A.
  - apply wqf_fields in Hw. destruct Hw as (E1 & E2 & _). unfold AO in *. rewrite E1, E2. exact A.
Qed.

Theorem parse_file_ao st base_file l u :
  match base_file with Some b => AO b | None => True end ->
  parse_file dbg hp hd ovr CUrlParser st base_file l = POk u -> AO u.
Proof.
  intros Hb H.
  destruct (parse_file_case dbg hp hd ovr CUrlParser st base_file l u H)
    as [an ser1 flag hi remaining ser2 hh rem2 ser4 qs fs _ _ [(_ & _ & ->)|(_ & _ & ->)]
       | ser1 he hi ser2 hh rem ser3 qs fs _ _ _ ->
       | b -> -> | b s qs fs -> _ -> | b -> Hf | b s1 s2 hh rem -> _ _ Hw
       | s2 hh rem s3 qs fs _ _ ->]; try apply ao_file_url; try exact Hb.
  - unfold fragment_only in Hf. cbv zeta in Hf. pb Hf fs Hfs. inversion Hf; subst u. exact Hb.
  - apply wqf_fields in Hw. destruct Hw as (E1 & E2 & _). unfold AO in *. rewrite E1, E2. exact Hb.
Qed.

Theorem parse_url_as base input u :
  match base with Some b => wf_b b = true /\ AS b | None => True end ->
  parse_url dbg hp hpo hd ovr base input = POk u -> AS u.
Proof.
  intros Hb H.
  destruct (parse_url_case dbg hp hpo hd ovr base input u H)
    as [b l -> Hf | bf l Hbf Hf | sch l0 l _ _ Ha | b l -> Ef Hc Hr | sch l _ Est Hn].
  - destruct Hb as [W K]. intros Hs. rewrite (fragment_only_b_scheme b l u W Hf) in Hs. pose proof (K Hs) as A.
    unfold fragment_only in Hf. cbv zeta in Hf. pb Hf fs Hfs. inversion Hf; subst u. exact A.
  - intros _. eapply parse_file_ao; [|exact Hf]. destruct bf as [b|]; [|exact I].
    destruct Hbf as [-> Eb]. apply (proj2 Hb). rewrite Eb. reflexivity.
  - intros _. refine (proj2 (ads_ao _ _ _ _ l u _ Ha)). rewrite nlen_app. reflexivity.
  - destruct Hb as [W K]. intros Hs. apply (parse_relative_ao (scheme_type_of (b_scheme b)) b l u W); [|exact Hr]. apply K.
    destruct Hc as [Hc|Hc]; [rewrite Hc; reflexivity|].
    rewrite (cannot_be_a_base_eval b W) in Hc. injection Hc as Hc. apply negb_false_iff, byte_eqb_nnth in Hc.
    destruct (parse_relative_bk dbg hp hpo hd ovr _ b l u W Hc Ef Hr) as (K1 & K2 & _).
    unfold b_scheme in *. rewrite K1, K2 in Hs. exact Hs.
  - assert (nlen (sch ++ [58]) = nlen sch + 1) as L0 by (rewrite nlen_app; reflexivity).
    destruct (pns_bk dbg hp hpo hd ovr _ _ _ l u L0 Hn) as (K1 & K2). intros Hs. exfalso.
    unfold b_scheme in Hs. rewrite K1, K2, nfirstn_app_exact, Est in Hs. discriminate.
Qed.

End Arms.

(* the consequence for joins: every parse result is a possible base, from a base with wf_b and AS *)
Theorem parse_url_as_base_ok dbg hp hpo hd ovr base input u : HostWf hp hpo hd ->
  match base with Some b => wf_b b = true /\ host_text_ok b /\ AS b | None => True end ->
  parse_url dbg hp hpo hd ovr base input = POk u -> wf_b u = true /\ host_text_ok u /\ AS u.
Proof.
  intros HW Hb Hp.
  assert (wf_b u = true /\ host_text_ok u) as [W HT].
  { apply (parse_url_wf_all dbg hp hpo hd ovr HW base input u); [|exact Hp].
    destruct base as [b|]; [|exact I]. destruct Hb as (Wb & Tb & Ab). split; [exact (as_base_ok b Wb Ab) | exact Tb]. }
  split; [exact W|]. split; [exact HT|].
  apply (parse_url_as dbg hp hpo hd ovr base input u); [|exact Hp].
  destruct base as [b|]; [|exact I]. destruct Hb as (Wb & _ & Ab). split; assumption.
Qed.
