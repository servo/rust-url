(* Proofs/C06_SpliceEx.v - non-vacuity of the whole-URL agreement theorems: with the alphanumeric host functions
   ex_hp / ex_hd of C02 (HostRT holds), the record of "a://h:80/p?q#f" and of "http://u:p@h/p" are canonical, each
   setter succeeds with an argument that needs encoding, and the spliced texts are the expected strings. *)
From Coq Require Import String.
From RU Require Import Base.Prelude Base.Utf8 Model.AsciiSet Gen.Tables Model.PercentEncoding Model.HostT Model.UrlRecord
  Model.Parser Model.Setters Model.WF Proofs.ListN Proofs.C02_Enc Proofs.C02_Parts Proofs.C02_Reach Proofs.C02_AuthParts Proofs.C02_Auth
  Proofs.C02_AuthMain Proofs.C02_Canon Proofs.C06_Quirks Proofs.C06_AgreeSet Proofs.C06_Splice Proofs.C06_SpliceAuth Proofs.C06_SpliceCred.
Open Scope N_scope.
Open Scope list_scope.

Lemma usv_B_small l : forallb (fun c => c <? 128) l = true -> usv_list l.
Proof.
  induction l as [|c r IH]; intros H; [constructor|]. cbn [forallb] in H. apply andb_true_iff in H. destruct H as [H1 H2].
  constructor; [unfold is_usv; lia | exact (IH H2)].
Qed.

Definition sx_u : url := mkUrl (B "http://u:p@h/p") 4 8 11 12 HI_Domain None 12 None None.

Lemma splice_canon_examples : Canon ex_hp ex_hp ex_hd qx_u /\ Canon ex_hp ex_hp ex_hd sx_u.
Proof.
  split.
  - apply (parse_Canon true ex_hp ex_hp ex_hd (proj1 ex_host_RT) None (B "a://h:80/p?q#f") qx_u (proj2 ex_host_RT)).
    + apply usv_B_small. vm_compute. reflexivity.
    + vm_compute. reflexivity.
    + left. reflexivity.
    + vm_compute. reflexivity.
  - apply (parse_Canon true ex_hp ex_hp ex_hd (proj1 ex_host_RT) None (B "http://u:p@h/p") sx_u (proj2 ex_host_RT)).
    + apply usv_B_small. vm_compute. reflexivity.
    + vm_compute. reflexivity.
    + left. reflexivity.
    + vm_compute. reflexivity.
Qed.

Definition splice_case (r : option url) (spliced expect : list N) (result : string) : Prop :=
  exists u', r = Some u' /\ spliced = expect /\ ser u' = B result /\ nlen (ser u') <= U32_MAX_P.

(* the four facts of a case, each a computation *)
Lemma splice_case_intro r sp ex res u' : r = Some u' -> sp = ex -> ser u' = B res -> (nlen (ser u') <=? U32_MAX_P) = true ->
  splice_case r sp ex res.
Proof. intros H1 H2 H3 H4. exists u'. split; [exact H1|]. split; [exact H2|]. split; [exact H3 | apply N.leb_le; exact H4]. Qed.

Lemma splice_inhabited :
  splice_case (set_fragment true qx_u (Some (B "f g"))) (splice_fragment qx_u (B "f g")) (B "a://h:80/p?q#f g") "a://h:80/p?q#f%20g"
  /\ first_ok (rev (35 :: B "f g"))
  /\ splice_case (set_query true qx_u (Some (B "k v"))) (splice_query qx_u (B "k v")) (B "a://h:80/p?k v#f") "a://h:80/p?k%20v#f"
  /\ no_hash (B "k v") = true
  /\ splice_case (ok_of (set_port true qx_u (Some 81))) (splice_port qx_u 81) (B "a://h:81/p?q#f") "a://h:81/p?q#f"
  /\ splice_case (ok_of (set_password true qx_u (Some (B "p:w")))) (splice_password qx_u (B "p:w")) (B "a://:p:w@h:80/p?q#f") "a://:p%3Aw@h:80/p?q#f"
  /\ forallb (plainc (sp_of qx_u)) (B "p:w") = true
  /\ splice_case (ok_of (set_username true qx_u (B "u s"))) (splice_username qx_u (B "u s")) (B "a://u s@h:80/p?q#f") "a://u%20s@h:80/p?q#f"
  /\ forallb (fun c => plainc (sp_of qx_u) c && negb (c =? 58)) (B "u s") = true
  /\ splice_case (ok_of (set_username true sx_u (B "v w"))) (splice_username sx_u (B "v w")) (B "http://v w:p@h/p") "http://v%20w:p@h/p"
  /\ splice_case (ok_of (set_username true sx_u [])) (splice_username sx_u []) (B "http://:p@h/p") "http://:p@h/p"
  /\ splice_case (ok_of (set_port true sx_u (Some 80))) (splice_port sx_u 80) (B "http://u:p@h:80/p") "http://u:p@h/p".
Proof.
  split; [eapply splice_case_intro; [vm_compute; reflexivity | vm_compute; reflexivity | vm_compute; reflexivity | vm_compute; reflexivity]|].
  split; [vm_compute; reflexivity|].
  split; [eapply splice_case_intro; [vm_compute; reflexivity | vm_compute; reflexivity | vm_compute; reflexivity | vm_compute; reflexivity]|].
  split; [vm_compute; reflexivity|].
  split; [eapply splice_case_intro; [vm_compute; reflexivity | vm_compute; reflexivity | vm_compute; reflexivity | vm_compute; reflexivity]|].
  split; [eapply splice_case_intro; [vm_compute; reflexivity | vm_compute; reflexivity | vm_compute; reflexivity | vm_compute; reflexivity]|].
  split; [vm_compute; reflexivity|].
  split; [eapply splice_case_intro; [vm_compute; reflexivity | vm_compute; reflexivity | vm_compute; reflexivity | vm_compute; reflexivity]|].
  split; [vm_compute; reflexivity|].
  split; [eapply splice_case_intro; [vm_compute; reflexivity | vm_compute; reflexivity | vm_compute; reflexivity | vm_compute; reflexivity]|].
  split; [eapply splice_case_intro; [vm_compute; reflexivity | vm_compute; reflexivity | vm_compute; reflexivity | vm_compute; reflexivity]|].
  eapply splice_case_intro; [vm_compute; reflexivity | vm_compute; reflexivity | vm_compute; reflexivity | vm_compute; reflexivity].
Qed.
