(* Proofs/C07_EqAuthHost.v - the hypothesis `host_extra` of the C07 authority class holds for the host
   functions of the two sides as they are (Model/Host.v: Host::parse_opaque + Display;
   Spec/WhatwgHostParse.v: the Standard's host parser with isOpaque = true + host serializer) on every
   string that does not start with '[' - as host_agree does (Proofs/C01_EqAuthHost.v). *)
From RU Require Import Base.Prelude Base.Utf8 Base.Utf8Facts Model.AsciiSet Gen.Tables Model.PercentEncoding
  Model.HostT Model.Host Model.UrlRecord Model.Parser Spec.Whatwg Spec.WhatwgHost Spec.WhatwgHostParse
  Proofs.C02_Enc Proofs.C02_Parts Proofs.C09_Host Proofs.C01_EqRun Proofs.C01_EqEnc
  Proofs.C01_EqAuthSpec Proofs.C01_EqAuthModel Proofs.C01_EqAuthHost Proofs.C07_EqAuthParse.
Import WhatwgHost.Spec.

Lemma upe_c0_head_at s : existsb (fun c => memb c forbidden_host_code_points) s = false ->
  starts_with_cp 64 (upe in_c0_control_set s) = false.
Proof.
  destruct s as [|c r]; [reflexivity|]. cbn [existsb]. intros H. apply orb_false_iff in H. destruct H as [H _].
  rewrite upe_cons. unfold utf8_percent_encode_cp. destruct (in_c0_control_set c).
  - unfold utf8_encode. cbn [flat_map]. rewrite app_nil_r.
    destruct (utf8_encode1 c) as [|b bs] eqn:E; [|reflexivity].
    exfalso. unfold utf8_encode1 in E. repeat (destruct (_ <? _) in E); discriminate E.
  - cbn [app starts_with_cp]. destruct (c =? 64) eqn:E; [|reflexivity]. apply N.eqb_eq in E. subst c. discriminate H.
Qed.

Theorem host_extra_real idna s : usv_list s -> Host.starts_with 91 s = false ->
  host_extra host_parse_opaque host_display (spec_host_parser idna) s.
Proof.
  intros Hu Hb. unfold host_extra, host_parsing. rewrite (parse_opaque_spec s Hu Hb), (spec_parser_not_bracket idna s Hb).
  unfold spec_opaque_host_parse.
  destruct (existsb (fun c => memb c forbidden_host_code_points) s) eqn:Ef; [exact I|].
  assert (c0_encode (utf8_encode s) = upe in_c0_control_set s) as Ec.
  { rewrite <- encode_controls by (apply utf8_encode_bytes; exact Hu). apply enc_bridge. exact rel_CONTROLS. }
  pose proof (upe_c0_head_at s Ef) as Hh.
  fold (upe in_c0_control_set s). cbn [host_display]. rewrite Ec.
  destruct (upe in_c0_control_set s) as [|a b] eqn:Eu.
  - split; [split; reflexivity | reflexivity].
  - split; [split; intros K; discriminate K | exact Hh].
Qed.

