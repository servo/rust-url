(* Proofs/C17_Body.v - the body bytes.  (1) Percent-decoding is blind to the percent-encoding the URL
   parser applies: decode (encode bs) = decode bs whenever no '%' and no hex digit is encoded (true of
   the C0-control and query sets).  (2) decode_without_base64 on the raw body is the Standard's
   percent-decode of the body with ASCII tab / newlines removed, unless a tab / newline sits inside
   an escape (F-C17-4; the class K3 of Known_C17, k17_split_escape in Model/KnownC17.v). *)
From RU Require Import Base.Prelude Base.Utf8Facts Model.PercentEncoding
  Model.KnownC17 Spec.Fetch
  Proofs.C18_BodyRef.

(* Part (1). *)
(* a byte string in which some bytes are marked for encoding *)
Definition enc_marked (l : list (N * bool)) : list N :=
  flat_map (fun p : N * bool => if snd p then enc_byte_spec (fst p) else [fst p]) l.

Definition mark_ok (p : N * bool) : Prop :=
  snd p = true -> fst p < 256 /\ fst p <> 37 /\ ascii_hex_digit_value (fst p) = None.

Lemma hex_digit_upper d : d < 16 -> ascii_hex_digit_value (hex_upper d) = Some d.
Proof.
  intros H. unfold ascii_hex_digit_value, hex_upper. destruct (d <? 10) eqn:E.
  - replace ((48 <=? 48 + d) && (48 + d <=? 57)) with true by lia. f_equal. lia.
  - replace ((48 <=? 55 + d) && (55 + d <=? 57)) with false by lia.
    replace ((65 <=? 55 + d) && (55 + d <=? 70)) with true by lia. f_equal. lia.
Qed.

Lemma pd_cons_other b r : b <> 37 -> percent_decode (b :: r) = b :: percent_decode r.
Proof. intros H. cbn [percent_decode]. replace (b =? 37) with false by lia. reflexivity. Qed.

Lemma pd_escape b r : b < 256 -> percent_decode (enc_byte_spec b ++ r) = b :: percent_decode r.
Proof.
  intros H. unfold enc_byte_spec. cbn [app percent_decode]. change (37 =? 37) with true. cbn [negb].
  rewrite !hex_digit_upper by lia. f_equal. lia.
Qed.

(* what percent_decode does at a '%', by the two following bytes *)
Definition two_hex (r : list N) : bool :=
  match r with
  | h :: l :: _ => match ascii_hex_digit_value h, ascii_hex_digit_value l with Some _, Some _ => true | _, _ => false end
  | _ => false
  end.

Lemma pd_pct_no r : two_hex r = false -> percent_decode (37 :: r) = 37 :: percent_decode r.
Proof.
  intros H. cbn [percent_decode]. change (37 =? 37) with true. cbn [negb].
  destruct r as [|h [|l r']]; try reflexivity. cbn [two_hex] in H.
  destruct (ascii_hex_digit_value h); [destruct (ascii_hex_digit_value l)|]; try reflexivity. discriminate.
Qed.

Lemma pd_pct_yes h l r hv lv : ascii_hex_digit_value h = Some hv -> ascii_hex_digit_value l = Some lv ->
  percent_decode (37 :: h :: l :: r) = (hv * 16 + lv) :: percent_decode r.
Proof. intros H1 H2. cbn [percent_decode]. change (37 =? 37) with true. cbn [negb]. rewrite H1, H2. reflexivity. Qed.

(* the first two bytes of the marked encoding are two hex digits exactly when those of the plain text are *)
Lemma two_hex_marked l : Forall mark_ok l -> two_hex (enc_marked l) = two_hex (map fst l).
Proof.
  intros H. destruct l as [|[h mh] [|[x mx] r]].
  - reflexivity.
  - inversion H as [|? ? H1 _]; subst. cbn [enc_marked flat_map fst snd map app]. destruct mh.
    + reflexivity.
    + reflexivity.
  - inversion H as [|? ? H1 H2]; subst. inversion H2 as [|? ? H3 _]; subst.
    cbn [enc_marked flat_map fst snd map].
    destruct mh.
    + destruct (H1 eq_refl) as (_ & _ & Hh). cbn [fst] in Hh. unfold enc_byte_spec. cbn [app two_hex].
      change (ascii_hex_digit_value 37) with (@None N). rewrite Hh. reflexivity.
    + cbn [app]. destruct mx.
      * destruct (H3 eq_refl) as (_ & _ & Hx). cbn [fst] in Hx. unfold enc_byte_spec. cbn [app two_hex].
        change (ascii_hex_digit_value 37) with (@None N). rewrite Hx.
        destruct (ascii_hex_digit_value h); reflexivity.
      * cbn [app two_hex]. reflexivity.
Qed.

Theorem decode_marked : forall n l, (length l <= n)%nat -> Forall mark_ok l ->
  percent_decode (enc_marked l) = percent_decode (map fst l).
Proof.
  induction n as [|n IH]; intros l Hn Hok.
  - destruct l; [reflexivity|cbn [length] in Hn; lia].
  - destruct l as [|[b m] r]; [reflexivity|]. cbn [length] in Hn.
    inversion Hok as [|? ? H1 H2]; subst.
    change (enc_marked ((b, m) :: r)) with ((if m then enc_byte_spec b else [b]) ++ enc_marked r).
    cbn [map fst].
    destruct m.
    + destruct (H1 eq_refl) as (Hb & H37 & _). cbn [fst] in *.
      rewrite pd_escape by exact Hb. rewrite pd_cons_other by exact H37. f_equal. apply IH; [lia|exact H2].
    + cbn [app]. destruct (N.eq_dec b 37) as [->|Hne].
      2:{ rewrite !pd_cons_other by exact Hne. f_equal. apply IH; [lia|exact H2]. }
      destruct (two_hex (map fst r)) eqn:Et.
      * (* both hex digits are unmarked *)
        destruct r as [|[h mh] [|[l ml] r']]; try discriminate. cbn [map fst two_hex] in Et.
        destruct (ascii_hex_digit_value h) as [hv|] eqn:Eh; [|discriminate].
        destruct (ascii_hex_digit_value l) as [lv|] eqn:El; [|discriminate].
        inversion H2 as [|? ? H3 H4]; subst. inversion H4 as [|? ? H5 H6]; subst.
        assert (mh = false) as ->.
        { destruct mh; [|reflexivity]. destruct (H3 eq_refl) as (_ & _ & Hx). cbn [fst] in Hx. congruence. }
        assert (ml = false) as ->.
        { destruct ml; [|reflexivity]. destruct (H5 eq_refl) as (_ & _ & Hx). cbn [fst] in Hx. congruence. }
        cbn [enc_marked flat_map fst snd app map].
        rewrite !(pd_pct_yes h l _ hv lv Eh El). f_equal.
        apply IH; [cbn [length] in Hn; lia|exact H6].
      * rewrite pd_pct_no by (rewrite two_hex_marked by exact H2; exact Et).
        rewrite pd_pct_no by exact Et. f_equal. apply IH; [lia|exact H2].
Qed.

(* Part (2).  not_tnl, stated on k17_tnl, is convertible with C02_Enc.not_tnl (nt_same in C17_BodyUrl.v). *)
Definition not_tnl (c : N) : bool := negb (k17_tnl c).

Fixpoint before_hash (l : list N) : list N :=
  match l with
  | [] => []
  | c :: r => if c =? 35 then [] else c :: before_hash r
  end.

Definition clean_body (bs : list N) : list N := filter not_tnl (before_hash bs).

Lemma k17_next_false_direct r h r1 : k17_next false r = Some (h, false, r1) -> r = h :: r1 /\ k17_tnl h = false.
Proof.
  destruct r as [|c r]; cbn [k17_next]; [discriminate|].
  destruct (k17_tnl c) eqn:Et.
  - intros H. exfalso. clear Et. revert H. generalize r. clear.
    induction r as [|x r IH]; cbn [k17_next]; [discriminate|]. destruct (k17_tnl x); [exact IH|discriminate].
  - intros H. inversion H; subst. split; [reflexivity|exact Et].
Qed.

Lemma clean_body_cons c r :
  clean_body (c :: r) = if c =? 35 then [] else if k17_tnl c then clean_body r else c :: clean_body r.
Proof.
  unfold clean_body. cbn [before_hash]. destruct (c =? 35); [reflexivity|]. cbn [filter]. unfold not_tnl at 1.
  destruct (k17_tnl c); reflexivity.
Qed.

Lemma k17_next_clean r : forall sk,
  match k17_next sk r with
  | Some (h, _, r1) => k17_tnl h = false /\ clean_body r = (if h =? 35 then [] else h :: clean_body r1)
  | None => clean_body r = []
  end.
Proof.
  induction r as [|c r IH]; intros sk; cbn [k17_next]; [reflexivity|].
  rewrite clean_body_cons.
  destruct (k17_tnl c) eqn:Et.
  - replace (c =? 35) with false by (unfold k17_tnl in Et; lia). exact (IH true).
  - split; [exact Et|]. reflexivity.
Qed.

Lemma hex_same c : ascii_hex_digit_value c = hex_val c.
Proof. reflexivity. Qed.

Lemma is_hex_not_special c v : hex_val c = Some v -> (c =? 35) = false /\ (c =? 37) = false /\ k17_tnl c = false.
Proof.
  unfold hex_val, is_digit, k17_tnl. intros H.
  destruct ((48 <=? c) && (c <=? 57)) eqn:E1; [lia|].
  destruct ((65 <=? c) && (c <=? 70)) eqn:E2; [lia|].
  destruct ((97 <=? c) && (c <=? 102)) eqn:E3; [lia|discriminate].
Qed.

Lemma split_escape_skip c r : (c =? 35) = false -> (c =? 37) = false -> k17_split_escape (c :: r) = k17_split_escape r.
Proof. intros H1 H2. cbn [k17_split_escape]. rewrite H1, H2. reflexivity. Qed.

(* two_hex of the cleaned text, from the two look-aheads *)
Lemma two_hex_clean r :
  two_hex (clean_body r) =
  match k17_next false r with
  | Some (h, _, r1) =>
      match k17_next false r1 with
      | Some (l, _, _) => k17_is_hex h && k17_is_hex l
      | None => false
      end
  | None => false
  end.
Proof.
  pose proof (k17_next_clean r false) as H1.
  destruct (k17_next false r) as [[[h s1] r1]|]; [|rewrite H1; reflexivity].
  destruct H1 as [_ H1]. rewrite H1.
  pose proof (k17_next_clean r1 false) as H2.
  unfold k17_is_hex.
  destruct (h =? 35) eqn:E35.
  { apply N.eqb_eq in E35. subst h. change (hex_val 35) with (@None N).
    destruct (k17_next false r1) as [[[l s2] r2]|]; reflexivity. }
  destruct (k17_next false r1) as [[[l s2] r2]|].
  - destruct H2 as [_ H2]. rewrite H2. destruct (l =? 35) eqn:L35.
    + apply N.eqb_eq in L35. subst l. change (hex_val 35) with (@None N). cbn [two_hex]. rewrite andb_false_r. reflexivity.
    + cbn [two_hex]. change (ascii_hex_digit_value h) with (hex_val h). change (ascii_hex_digit_value l) with (hex_val l).
      destruct (hex_val h); [destruct (hex_val l)|]; reflexivity.
  - rewrite H2. reflexivity.
Qed.

Theorem body_ref_is_percent_decode : forall n bs, (length bs <= n)%nat -> k17_split_escape bs = false ->
  fst (body_ref bs) = percent_decode (clean_body bs).
Proof.
  induction n as [|n IH]; intros bs Hn Hk.
  - destruct bs; [reflexivity|cbn [length] in Hn; lia].
  - destruct bs as [|b r]; [reflexivity|]. cbn [length] in Hn. cbn [body_ref].
    unfold clean_body. cbn [before_hash].
    destruct (b =? 35) eqn:E35; [reflexivity|].
    change ((b =? 9) || (b =? 10) || (b =? 13)) with (k17_tnl b).
    destruct (k17_tnl b) eqn:Et.
    { cbn [filter]. unfold not_tnl at 1. rewrite Et. cbn [negb].
      rewrite split_escape_skip in Hk by (try exact E35; unfold k17_tnl in Et; lia).
      apply IH; [lia|exact Hk]. }
    cbn [filter]. unfold not_tnl at 1. rewrite Et. cbn [negb]. fold (clean_body r).
    assert (Hkeep : k17_split_escape r = false ->
                    fst (let (o, f) := body_ref r in (b :: o, f)) = b :: percent_decode (clean_body r)).
    { intros Hr. rewrite <- (IH r) by (try lia; exact Hr). destruct (body_ref r); reflexivity. }
    destruct (b =? 37) eqn:E37.
    2:{ rewrite split_escape_skip in Hk by assumption. rewrite pd_cons_other by lia. exact (Hkeep Hk). }
    apply N.eqb_eq in E37. subst b.
    cbn [k17_split_escape] in Hk. change (37 =? 35) with false in Hk. change (37 =? 37) with true in Hk. cbv iota in Hk.
    apply orb_false_iff in Hk. destruct Hk as [Hk1 Hk2].
    (* are the two raw bytes after '%' hex digits? *)
    destruct r as [|h [|l r']].
    + rewrite pd_pct_no by reflexivity. exact (Hkeep Hk2).
    + rewrite pd_pct_no; [exact (Hkeep Hk2)|].
      rewrite two_hex_clean. cbn [k17_next]. destruct (k17_tnl h); reflexivity.
    + destruct (hex_val h) as [hv|] eqn:Eh, (hex_val l) as [lv|] eqn:El.
      1:{ (* a direct escape *)
        destruct (is_hex_not_special h hv Eh) as (Hh1 & Hh2 & Hh3).
        destruct (is_hex_not_special l lv El) as (Hl1 & Hl2 & Hl3).
        unfold clean_body. cbn [before_hash]. rewrite Hh1, Hl1. cbn [filter]. unfold not_tnl. rewrite Hh3, Hl3. cbn [negb].
        fold not_tnl. fold (clean_body r').
        rewrite (pd_pct_yes h l _ hv lv) by (rewrite hex_same; assumption).
        rewrite !split_escape_skip in Hk2 by assumption.
        rewrite <- (IH r') by (try exact Hk2; cbn [length] in Hn; lia). destruct (body_ref r'); reflexivity. }
      (* the two raw bytes after '%' are not both hex digits: outside K3 the two code points the parser sees are
         these two (the flags s1, s2 of k17_next say whether a tab / newline was skipped before each; both
         are false by Hk1), so the cleaned text has no escape here either *)
      all: rewrite pd_pct_no; [exact (Hkeep Hk2)|]; rewrite two_hex_clean;
        destruct (k17_next false (h :: l :: r')) as [[[h1 s1] r1]|] eqn:N1; [|reflexivity];
        destruct (k17_next false r1) as [[[l1 s2] r2]|] eqn:N2; [|reflexivity];
        destruct (k17_is_hex h1 && k17_is_hex l1) eqn:Ehh; [|reflexivity];
        cbn [andb] in Hk1; apply orb_false_iff in Hk1; destruct Hk1 as [-> ->];
        destruct (k17_next_false_direct _ _ _ N1) as [R1 _]; inversion R1; subst h1 r1;
        destruct (k17_next_false_direct _ _ _ N2) as [R2 _]; inversion R2; subst l1 r2;
        unfold k17_is_hex in Ehh; rewrite Eh, El in Ehh; discriminate Ehh.
Qed.
