(* Proofs/C02_FileOps.v - L2 on canonical file records (FileCanon) for the mutators other than the query / fragment
   setters of C02_FileSet:
     - the credential and port setters (Url::set_port / set_password / set_username, quirks username / password /
       port) refuse a file record: it is returned unchanged (file_refused);
     - Url::set_scheme / quirks protocol: a file record without a host is returned unchanged, a file record with a
       host h becomes the canonical special record  ns "://" h path [?q] [#f]  (Canon_special) or stays unchanged
       (set_scheme_File) - a file record with a host IS the authority frame auth_url "file" UNone h None (file_curl_auth);
     - Url::set_host(None): the host text is removed, the result is the canonical file record without a host
       (set_host_none_File). *)
From RU Require Import Base.Prelude Model.HostT Model.UrlRecord Model.Parser Model.Setters Proofs.ListN
  Proofs.C02_Parts Proofs.C02_Opaque Proofs.C02_Path Proofs.C02_Reach Proofs.C02_AuthParts Proofs.C02_Auth
  Proofs.C02_PathSp Proofs.C02_AuthSp Proofs.C02_SetQF Proofs.C02_Canon Proofs.C02_SetPort Proofs.C02_SetCred
  Proofs.C02_SetHostNone Proofs.C02_SetScheme Proofs.C02_File Proofs.C02_FileCanon Proofs.C02_FileParse
  Proofs.C02_FileSet.
Open Scope N_scope.
Open Scope list_scope.

Section FileOps.
Variable dbg : bool.
Variable hp hpo : list N -> result host.
Variable hd : host -> list N.
Hypothesis HRT : HostRT hp hpo hd.

Lemma file_curl_auth h segs last q f :
  file_curl hd (Some h) (path_text segs last) q f = auth_url hd s_file UNone h None (Some (segs, last)) q f.
Proof.
  unfold file_curl, qf_url, file_pre, file_front, auth_url, auth_ser, auth_pre, auth_front.
  cbn [ui_text ui_ulen port_text fhost_text fhost_hi pth_text app].
  rewrite !app_nil_r. change (s_file ++ [58; 47; 47]) with s_file_css.
  rewrite !nlen_app. change (nlen s_file_css) with 7. change (nlen s_file) with 4. change (nlen (@nil N)) with 0.
  f_equal; lia.
Qed.

Lemma file_curl_sf_none T q f :
  file_curl hd None T q f = sf_url s_file ([58; 47; 47] ++ T) 3 3 3 HI_None None 3 q f.
Proof.
  unfold file_curl, qf_url, file_pre, file_front, sf_url. cbn [fhost_text fhost_hi]. rewrite app_nil_r.
  change s_file_css with (s_file ++ [58; 47; 47]). rewrite <- !app_assoc. reflexivity.
Qed.

Lemma file_cannot_port ho segs last q f : fhost_ok hp hd ho ->
  cannot_have_credentials_or_port (file_curl hd ho (path_text segs last) q f) = Some true.
Proof.
  intros Kh. destruct ho as [h|]; [|reflexivity]. rewrite file_curl_auth. destruct Kh as (Hne & _ & Ht & _).
  exact (auth_cannot_port_text hd s_file UNone h None (Some (segs, last)) q f Hne (proj1 (proj2 Ht))).
Qed.

Notation FileCanon := (FileCanon hp hd).

(* the credential and port setters refuse a file record: it is returned unchanged *)
Definition file_refused_op (o : op) : bool :=
  match o with OSetPort _ | OSetPassword _ | OSetUsername _ | OQUsername _ | OQPassword _ | OQPort _ => true | _ => false end.

Theorem file_refused u o u' : FileCanon u -> file_refused_op o = true ->
  apply_op dbg hp hpo hd u o = Some u' -> u' = u.
Proof.
  intros [ho segs last q f K] Ho. pose proof (file_cannot_port ho segs last q f (fk_host _ _ _ _ _ _ _ K)) as Hc.
  destruct o; try discriminate Ho; cbn [apply_op];
    unfold q_set_username, q_set_password, q_set_port, set_port, set_password, set_username; rewrite Hc; cbn [bindo option_map fst];
    intros E; inversion E; reflexivity.
Qed.


Lemma set_scheme_file_nohost T q f x r :
  set_scheme dbg (file_curl hd None T q f) x = Some r -> r = (file_curl hd None T q f, SErrUnit).
Proof.
  rewrite file_curl_sf_none. set (U := sf_url s_file ([58; 47; 47] ++ T) 3 3 3 HI_None None 3 q f). unfold set_scheme.
  destruct (parse_scheme CSetter (input_new_no_trim x)) as [[ns rem]|]; [|intros E; inversion E; reflexivity].
  unfold u_scheme_type. unfold U at 1. rewrite sf_scheme. cbn [bindo].
  destruct (has_authority dbg U) as [ha|]; [|discriminate]. cbn [bindo].
  change (scheme_type_of s_file) with STFile. cbn [st_is_special negb andb].
  destruct (st_is_special (scheme_type_of ns)) eqn:Esp; cbn [negb andb orb].
  - destruct (st_is_file (scheme_type_of ns) && ha); [intros E; inversion E; reflexivity|].
    change (has_host U) with false. cbn [negb andb]. rewrite orb_true_r. intros E; inversion E; reflexivity.
  - intros E; inversion E; reflexivity.
Qed.

Lemma set_port_none u : set_port dbg u None
  = (c <- cannot_have_credentials_or_port u ;; if c then Some (u, SErrUnit) else
     s <- scheme u ;; u' <- set_port_internal dbg u None ;; Some (u', SOk)).
Proof. reflexivity. Qed.

Lemma fhost_host_ok h : fhost_ok hp hd (Some h) -> host_ok hp hpo hd STSpecialNotFile h.
Proof.
  intros (Hne & _ & Ht & Hp & Ha & _). right. split; [exact Hne|]. split; [exact Ht|]. split; [exact Hp | exact Ha].
Qed.

Theorem set_scheme_file_host h segs last q f x u' s : file_ok hp hd (Some h) segs last q f ->
  set_scheme dbg (file_curl hd (Some h) (path_text segs last) q f) x = Some (u', s) -> nlen (ser u') <= U32_MAX_P ->
  u' = file_curl hd (Some h) (path_text segs last) q f
  \/ exists ns, auth_ok hp hpo hd STSpecialNotFile ns UNone h None (Some (segs, last)) q f
                /\ u' = auth_url hd ns UNone h None (Some (segs, last)) q f.
Proof.
  intros K E Hb. rewrite file_curl_auth in *. set (p := Some (segs, last)) in *.
  rewrite auth_url_sf in E. apply set_scheme_sf in E. rewrite <- !auth_url_sf in E.
  destruct E as [E | (ns & rem & ha & Ep & Eh & Esp & Efile & r' & Er & E)].
  - inversion E; subst. left. reflexivity.
  - right. rewrite <- auth_url_sf in Er. rewrite auth_has_authority in Eh. inversion Eh; subst ha. rewrite andb_true_r in Efile.
    pose proof (parse_scheme_out_g _ _ _ _ Ep) as Hcan.
    assert (scheme_type_of ns = STSpecialNotFile) as Est.
    { change (scheme_type_of s_file) with STFile in Esp. destruct (scheme_type_of ns); try discriminate; reflexivity. }
    inversion E; subst u' s. clear E.
    pose proof (fhost_host_ok h (fk_host _ _ _ _ _ _ _ K)) as Kh.
    rewrite set_port_none in Er. rewrite (auth_cannot_port_g hp hpo hd STSpecialNotFile ns UNone h None p q f Est eq_refl Kh) in Er.
    cbn [bindo] in Er.
    assert (h <> HDomain []) as Hne by (destruct (fk_host _ _ _ _ _ _ _ K) as (Hne & _); exact Hne).
    destruct (match h with HDomain [] => true | _ => false end) eqn:Ehe.
    { exfalso. apply Hne. destruct h as [[|c d]|a|pcs]; try discriminate Ehe; reflexivity. }
    rewrite auth_scheme in Er. cbn [bindo] in Er. rewrite auth_url_hp in Er. rewrite set_port_internal_frame in Er.
    cbn [bindo] in Er. rewrite <- auth_url_hp in Er. inversion Er; subst r'. cbn [fst] in *.
    exists ns. split; [|reflexivity].
    destruct K as [Kh0 Ksegs Klast Kfirst Kq Kf Kb1 Kbq Kbf].
    cbn [auth_url ser] in Hb. destruct (qf_bounds _ _ _ _ Hb) as [B1 B2].
    constructor; try assumption; try exact I.
    + intros Ee. contradiction.
    + split; [apply good_segs_sp_good; apply fsegs_ok_sp; exact Ksegs | apply good_seg_sp_good; apply fseg_ok_sp; exact Klast].
    + unfold C02_Auth.auth_ser, auth_pre in Hb. rewrite !nlen_app in Hb. lia.
Qed.

Theorem set_scheme_File u x u' s : FileCanon u ->
  set_scheme dbg u x = Some (u', s) -> nlen (ser u') <= U32_MAX_P -> u' = u \/ Canon hp hpo hd u'.
Proof.
  intros [ho segs last q f K] E Hb. destruct ho as [h|].
  - destruct (set_scheme_file_host h segs last q f x u' s K E Hb) as [-> | (ns & K' & ->)]; [left; reflexivity|].
    right. apply Canon_special; [exact K'|]. cbn [pth_ok_sp]. split.
    + apply fsegs_ok_sp. exact (fk_segs _ _ _ _ _ _ _ K).
    + apply fseg_ok_sp. exact (fk_last _ _ _ _ _ _ _ K).
  - apply set_scheme_file_nohost in E. inversion E. left. reflexivity.
Qed.

(* Url::set_host(None) *)
Lemma file_scheme ho segs last q f : scheme (file_curl hd ho (path_text segs last) q f) = Some s_file.
Proof.
  destruct ho as [h|]; [rewrite file_curl_auth; apply auth_scheme | rewrite file_curl_sf_none; apply sf_scheme].
Qed.

Lemma file_sub_qs M X q : sub_off_opt dbg (qf_qs (nlen ((s_file_css ++ M) ++ X)) q) (nlen M) = Some (qf_qs (nlen (s_file_css ++ X)) q).
Proof.
  destruct q as [x|]; cbn [qf_qs]; [|reflexivity]. unfold sub_off_opt, adjust_opt.
  rewrite adjust_ge by (rewrite !nlen_app; lia). cbn [bindo]. do 2 f_equal. rewrite !nlen_app. lia.
Qed.
Lemma file_sub_fs M X q f : sub_off_opt dbg (qf_fs (nlen ((s_file_css ++ M) ++ X)) q f) (nlen M) = Some (qf_fs (nlen (s_file_css ++ X)) q f).
Proof.
  destruct f as [y|]; cbn [qf_fs]; [|reflexivity]. unfold sub_off_opt, adjust_opt.
  rewrite adjust_ge by (rewrite !nlen_app; lia). cbn [bindo]. do 2 f_equal. rewrite !nlen_app. lia.
Qed.

Theorem set_host_none_file h segs last q f : h <> HDomain [] ->
  set_host dbg hp hpo hd (file_curl hd (Some h) (path_text segs last) q f) None
  = Some (file_curl hd None (path_text segs last) q f, SOk).
Proof.
  intros Hne. set (T := path_text segs last). set (U := file_curl hd (Some h) T q f). set (W := segs_text segs ++ last ++ qf_text q f).
  assert (ser U = (s_file_css ++ hd h) ++ 47 :: W) as Es.
  { unfold U, file_curl, qf_url, file_pre, file_front, T, path_text, W. cbn [ser fhost_text]. rewrite <- !app_assoc. cbn [app]. rewrite <- !app_assoc. reflexivity. }
  unfold set_host. unfold U at 1. rewrite file_curl_cbb. cbn [bindo].
  unfold u_scheme_type. unfold U at 1, T. rewrite file_scheme. cbn [bindo]. change (scheme_type_of s_file) with STFile.
  cbn [st_is_special st_is_file negb andb].
  assert (has_host U = true) as ->.
  { unfold has_host, U, file_curl, qf_url. cbn [hosti fhost_hi]. destruct h as [[|c d]|a|pcs]; [contradiction | reflexivity ..]. }
  rewrite Es. change (path_start U) with (nlen (s_file_css ++ hd h)). change (scheme_end U) with 4.
  change (query_start U) with (qf_qs (nlen ((s_file_css ++ hd h) ++ T)) q).
  change (fragment_start U) with (qf_fs (nlen ((s_file_css ++ hd h) ++ T)) q f).
  replace (nlen ((s_file_css ++ hd h) ++ 47 :: W) =? nlen (s_file_css ++ hd h)) with false
    by (symmetry; apply N.eqb_neq; rewrite (nlen_app _ (47 :: W)), nlen_cons; lia).
  unfold dbg_byte_is, byte_is, byte_at, set_ser. cbn [ser].
  assert (nnth ((s_file_css ++ hd h) ++ 47 :: W) 4 = Some 58) as ->.
  { unfold s_file_css, s_css. rewrite <- !app_assoc. cbn [app]. change 4 with (nlen s_file). apply nnth_app_at_loc. }
  rewrite nnth_app_at_loc. cbn [bindo]. rewrite !N.eqb_refl. cbn [assert_o].
  assert ((if dbg then Some tt else Some tt) = Some tt) as -> by (destruct dbg; reflexivity). cbn [bindo].
  replace ((4 + 3 <=? nlen (s_file_css ++ hd h)) && (nlen (s_file_css ++ hd h) <=? nlen ((s_file_css ++ hd h) ++ 47 :: W))) with true
    by (symmetry; rewrite !nlen_app; apply andb_true_iff; split; apply N.leb_le; change (nlen s_file_css) with 7; lia).
  cbn [assert_o bindo].
  replace (nlen (s_file_css ++ hd h) - (4 + 3)) with (nlen (hd h)) by (rewrite nlen_app; change (nlen s_file_css) with 7; lia).
  rewrite file_sub_qs, file_sub_fs. cbn [bindo].
  rewrite nskipn_app_len. rewrite <- (app_assoc s_file_css (hd h)). change (4 + 3) with (nlen s_file_css). rewrite nfirstn_app_len.
  unfold file_curl, qf_url, file_pre, file_front, T, path_text, W. cbn [fhost_text fhost_hi]. rewrite !app_nil_r.
  rewrite <- !app_assoc. cbn [app]. rewrite <- !app_assoc. reflexivity.
Qed.

Theorem set_host_none_File u u' s : FileCanon u ->
  set_host dbg hp hpo hd u None = Some (u', s) -> FileCanon u'.
Proof.
  intros [ho segs last q f K] E. destruct ho as [h|].
  - destruct (fk_host _ _ _ _ _ _ _ K) as (Hne & _).
    rewrite (set_host_none_file h segs last q f Hne) in E. inversion E; subst u' s. clear E.
    destruct K as [Kh Ksegs Klast Kfirst Kq Kf Kb1 Kbq Kbf].
    assert (nlen (file_pre hd None (path_text segs last)) <= nlen (file_pre hd (Some h) (path_text segs last))) as Hle.
    { unfold file_pre, file_front. cbn [fhost_text]. rewrite !nlen_app. change (nlen (@nil N)) with 0. lia. }
    apply FileCanon_intro. constructor; try assumption.
    + exact I.
    + exact (file_front_none_bound hd).
    + exact (qf_qs_mono _ _ q _ Hle Kbq).
    + exact (qf_fs_mono _ _ q f _ Hle Kbf).
  - unfold set_host in E. rewrite file_curl_cbb in E. cbn [bindo] in E.
    unfold u_scheme_type in E. rewrite file_scheme in E. cbn [bindo] in E.
    change (has_host (file_curl hd None (path_text segs last) q f)) with false in E.
    inversion E; subst u' s. apply FileCanon_intro. exact K.
Qed.
End FileOps.
