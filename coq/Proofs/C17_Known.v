(* Proofs/C17_Known.v - from the computable class Known_C17 (Model/KnownC17.v, on the code points of
   the input) to the hypotheses of C17_Full.opaque_is_fetch (on what parse_scheme leaves after "data:"
   and on the UTF-8 bytes DataUrl::process works on). *)
From RU Require Import Base.Prelude Base.Utf8 Base.Utf8Facts
  Model.HostT Model.UrlRecord Model.Parser Model.DataUrl Model.DataUrlTie Model.KnownC17
  Proofs.C02_Enc Proofs.C02_Parts Proofs.C19_Pure
  Proofs.C17_Main Proofs.C17_Bridge Proofs.C17_Fragment
  Proofs.C17_BodyUrl Proofs.C17_Header Proofs.C17_Full.

Local Notation nt := C02_Enc.not_tnl.

(* bytes of a code point: one byte below 128, or a sequence of bytes all >= 128 *)
Definition hi (l : list N) : Prop := Forall (fun b => 128 <= b) l.

Lemma enc1_cases c : is_usv c ->
  (c < 128 /\ utf8_encode1 c = [c])
  \/ (128 <= c /\ exists b l, utf8_encode1 c = b :: l /\ 128 <= b /\ hi l).
Proof.
  intros Hu. destruct (N.ltb_spec c 128) as [Hlt|Hge].
  - left. split; [exact Hlt|apply encode1_ascii; exact Hlt].
  - right. split; [exact Hge|]. pose proof (encode1_all_above c 128 Hu Hge ltac:(lia)) as Hall.
    destruct (utf8_encode1_head c Hu Hge) as (b & l & E & Hb & _). exists b, l. rewrite E in Hall.
    inversion Hall; subst. split; [exact E|]. split; assumption.
Qed.

(* The class K3 (k17_split_escape) gives the same answer on the UTF-8 bytes as on the code points:
   split_escape_utf8. *)
Definition esc_check (r : list N) : bool :=
  match k17_next false r with
  | Some (h, s1, r1) =>
      match k17_next false r1 with
      | Some (l, s2, _) => k17_is_hex h && k17_is_hex l && (s1 || s2)
      | None => false
      end
  | None => false
  end.

Lemma split_escape_unfold c r :
  k17_split_escape (c :: r) =
  if c =? 35 then false else if c =? 37 then esc_check r || k17_split_escape r else k17_split_escape r.
Proof. reflexivity. Qed.

Lemma is_hex_hi b : 128 <= b -> k17_is_hex b = false.
Proof.
  intros H. unfold k17_is_hex, hex_val, is_digit.
  replace ((48 <=? b) && (b <=? 57)) with false by lia. replace ((65 <=? b) && (b <=? 70)) with false by lia.
  replace ((97 <=? b) && (b <=? 102)) with false by lia. reflexivity.
Qed.

Lemma next_utf8 r : usv_list r -> forall sk,
  match k17_next sk r with
  | None => k17_next sk (utf8_encode r) = None
  | Some (c, s, r') =>
      (c < 128 /\ k17_next sk (utf8_encode r) = Some (c, s, utf8_encode r') /\ usv_list r')
      \/ (128 <= c /\ exists b rr, k17_next sk (utf8_encode r) = Some (b, s, rr) /\ 128 <= b)
  end.
Proof.
  induction r as [|c r IH]; intros Hu sk; [reflexivity|]. inversion Hu as [|? ? Hc Hr]; subst.
  cbn [k17_next]. rewrite utf8_cons. destruct (k17_tnl c) eqn:Et.
  - rewrite encode1_ascii by (unfold k17_tnl in Et; lia). cbn [app k17_next]. rewrite Et. exact (IH Hr true).
  - destruct (enc1_cases c Hc) as [[Hlt E]|[Hge (b & l & E & Hb & Hl)]]; rewrite E.
    + left. cbn [app k17_next]. rewrite Et. split; [exact Hlt|]. split; [reflexivity|exact Hr].
    + right. split; [exact Hge|]. exists b, (l ++ utf8_encode r). cbn [app k17_next].
      replace (k17_tnl b) with false by (unfold k17_tnl; lia). split; [reflexivity|exact Hb].
Qed.

Lemma esc_check_utf8 r : usv_list r -> esc_check (utf8_encode r) = esc_check r.
Proof.
  intros Hu. unfold esc_check. pose proof (next_utf8 r Hu false) as H1.
  destruct (k17_next false r) as [[[h s1] r1]|]; [|rewrite H1; reflexivity].
  destruct H1 as [(Hlt & E & Hr1)|(Hge & b & rr & E & Hb)]; rewrite E.
  - pose proof (next_utf8 r1 Hr1 false) as H2.
    destruct (k17_next false r1) as [[[l s2] r2]|]; [|rewrite H2; reflexivity].
    destruct H2 as [(Hlt2 & E2 & _)|(Hge2 & b2 & rr2 & E2 & Hb2)]; rewrite E2; [reflexivity|].
    rewrite (is_hex_hi b2 Hb2), (is_hex_hi l Hge2). rewrite !andb_false_r. reflexivity.
  - rewrite (is_hex_hi b Hb), (is_hex_hi h Hge).
    destruct (k17_next false rr) as [[[l s2] r2]|]; destruct (k17_next false r1) as [[[l' s2'] r2']|]; reflexivity.
Qed.

Lemma split_escape_hi l r : hi l -> k17_split_escape (l ++ r) = k17_split_escape r.
Proof.
  induction l as [|b l IH]; intros H; [reflexivity|]. inversion H as [|? ? Hb Hl]; subst.
  cbn [app]. rewrite split_escape_unfold. replace (b =? 35) with false by lia. replace (b =? 37) with false by lia.
  exact (IH Hl).
Qed.

Lemma split_escape_utf8 r : usv_list r -> k17_split_escape (utf8_encode r) = k17_split_escape r.
Proof.
  induction r as [|c r IH]; intros Hu; [reflexivity|]. inversion Hu as [|? ? Hc Hr]; subst.
  rewrite utf8_cons. destruct (enc1_cases c Hc) as [[Hlt E]|[Hge (b & l & E & Hb & Hl)]]; rewrite E.
  - cbn [app]. rewrite !split_escape_unfold. rewrite (IH Hr), (esc_check_utf8 r Hr). reflexivity.
  - rewrite (split_escape_hi (b :: l) (utf8_encode r)) by (constructor; assumption).
    rewrite split_escape_unfold. replace (c =? 35) with false by lia. replace (c =? 37) with false by lia.
    exact (IH Hr).
Qed.

(* The class K2 (k17_query_space) gives the same answer on the UTF-8 bytes as on the code points:
   query_space_utf8. *)
Lemma after_qmark_first' l : k17_after_qmark l = after_first 63 l.
Proof. induction l as [|c r IH]; [reflexivity|]. cbn [k17_after_qmark after_first]. rewrite IH. reflexivity. Qed.

(* RU (a definition of this file, not the library RU): the reversed UTF-8 encoding, piece by piece, so
   that rev (utf8_encode q) = RU (rev q) and a scan from the end of the bytes becomes a scan from the
   front of RU.  The same device as renc / R in C17_Header.v and rencq / RQ in C17_HeaderQ.v, there
   for percent-encoding. *)
Definition ru (c : N) : list N := rev (utf8_encode1 c).
Definition RU (y : list N) : list N := flat_map ru y.

Lemma rev_utf8 q : rev (utf8_encode q) = RU (rev q).
Proof. unfold utf8_encode, RU. rewrite rev_flat_map. reflexivity. Qed.

Lemma ru_cases c : is_usv c ->
  (c < 128 /\ ru c = [c]) \/ (128 <= c /\ exists b l, ru c = b :: l /\ 128 <= b).
Proof.
  intros Hu. unfold ru. destruct (enc1_cases c Hu) as [[Hlt E]|[Hge (b & l & E & Hb & Hl)]]; rewrite E.
  - left. split; [exact Hlt|reflexivity].
  - right. split; [exact Hge|].
    assert (Hall : hi (rev (b :: l))) by (apply Forall_rev; constructor; assumption).
    destruct (rev (b :: l)) as [|x y] eqn:Er.
    + apply (f_equal (@length N)) in Er. rewrite rev_length in Er. discriminate Er.
    + inversion Hall; subst. exists x, y. split; [reflexivity|assumption].
Qed.

Lemma strip_ci_RU lit : Forall (fun l => l < 128) lit -> forall y, usv_list y ->
  k17_strip_ci lit (RU y) = option_map RU (k17_strip_ci lit y).
Proof.
  induction lit as [|l lit IH]; intros Hl y Hu; [reflexivity|]. inversion Hl as [|? ? Hl1 Hl2]; subst.
  destruct y as [|c y]; [reflexivity|]. inversion Hu as [|? ? Hc Hy]; subst.
  change (RU (c :: y)) with (ru c ++ RU y).
  destruct (ru_cases c Hc) as [[Hlt E]|[Hge (b & r & E & Hb)]]; rewrite E.
  - cbn [app k17_strip_ci]. destruct (to_lower c =? l); [exact (IH Hl2 y Hy)|reflexivity].
  - cbn [app k17_strip_ci]. rewrite (to_lower_hi b), (to_lower_hi c) by lia.
    replace (b =? l) with false by lia. replace (c =? l) with false by lia. reflexivity.
Qed.

Definition semi_next (r : list N) : bool :=
  match k17_drop (fun x => x =? 32) r with d :: _ => d =? 59 | [] => false end.

Lemma semi_next_RU r : usv_list r -> semi_next (RU r) = semi_next r.
Proof.
  unfold semi_next. induction r as [|c r IH]; intros Hu; [reflexivity|]. inversion Hu as [|? ? Hc Hr]; subst.
  change (RU (c :: r)) with (ru c ++ RU r).
  destruct (ru_cases c Hc) as [[Hlt E]|[Hge (b & l & E & Hb)]]; rewrite E.
  - cbn [app k17_drop]. destruct (c =? 32); [exact (IH Hr)|reflexivity].
  - cbn [app k17_drop]. replace (b =? 32) with false by lia. replace (c =? 32) with false by lia.
    replace (b =? 59) with false by lia. replace (c =? 59) with false by lia. reflexivity.
Qed.

Lemma spaced_unfold rq : k17_spaced_base64 rq =
  match k17_strip_ci [52; 54; 101; 115; 97; 98] rq with
  | Some (c :: r) => (c =? 32) && semi_next r
  | _ => false
  end.
Proof. reflexivity. Qed.

Lemma k17_strip_usv lit : forall y r, usv_list y -> k17_strip_ci lit y = Some r -> usv_list r.
Proof.
  induction lit as [|l lit IH]; intros y r Hu H.
  - destruct y; inversion H; subst; exact Hu.
  - destruct y as [|c y]; [discriminate|]. cbn [k17_strip_ci] in H. destruct (to_lower c =? l); [|discriminate].
    inversion Hu; subst. eapply IH; eassumption.
Qed.

Lemma spaced_RU y : usv_list y -> k17_spaced_base64 (RU y) = k17_spaced_base64 y.
Proof.
  intros Hu. rewrite !spaced_unfold. rewrite strip_ci_RU by (try exact Hu; repeat constructor; lia).
  destruct (k17_strip_ci [52; 54; 101; 115; 97; 98] y) as [r|] eqn:E; [|reflexivity]. cbn [option_map].
  pose proof (k17_strip_usv _ _ _ Hu E) as Hr.
  destruct r as [|c r1]; [reflexivity|]. inversion Hr as [|? ? Hc Hr1]; subst.
  change (RU (c :: r1)) with (ru c ++ RU r1).
  destruct (ru_cases c Hc) as [[Hlt Ec]|[Hge (b & l & Ec & Hb)]]; rewrite Ec.
  - cbn [app]. rewrite (semi_next_RU r1 Hr1). reflexivity.
  - cbn [app]. replace (b =? 32) with false by lia. replace (c =? 32) with false by lia. reflexivity.
Qed.

Lemma query_space_utf8 X : usv_list X -> k17_query_space (utf8_encode X) = k17_query_space X.
Proof.
  intros Hu. unfold k17_query_space. rewrite !after_qmark_first'.
  rewrite after_first_utf8 by (try exact Hu; lia).
  destruct (after_first 63 X) as [q|] eqn:Eq; [|reflexivity]. cbn [option_map].
  pose proof (after_first_usv 63 X q Hu Eq) as Hq.
  rewrite rev_utf8. assert (Hy : usv_list (rev q)) by (apply usv_rev; exact Hq).
  rewrite <- (spaced_RU (rev q) Hy).
  destruct (rev q) as [|c y]; [reflexivity|]. inversion Hy as [|? ? Hc _]; subst.
  change (RU (c :: y)) with (ru c ++ RU y).
  destruct (ru_cases c Hc) as [[Hlt Ec]|[Hge (b & l & Ec & Hb)]]; rewrite Ec.
  - reflexivity.
  - cbn [app]. replace (b =? 32) with false by lia. replace (c =? 32) with false by lia. reflexivity.
Qed.

(* the text the classes look at, in terms of what parse_scheme leaves *)
Lemma k17_drop_same' l : k17_drop k17_c0sp l = Parser.drop_while Parser.is_c0_or_space l.
Proof. induction l as [|c r IH]; [reflexivity|]. cbn [k17_drop Parser.drop_while]. rewrite IH. reflexivity. Qed.

Lemma k17_trimmed_same s : k17_trimmed s = input_new_trim_c0 s.
Proof. unfold k17_trimmed, input_new_trim_c0, Parser.trim_matches. rewrite !k17_drop_same'. reflexivity. Qed.

Lemma k17_cleaned_same s : k17_cleaned s = filter nt (input_new_trim_c0 s).
Proof. unfold k17_cleaned. fold (k17_trimmed s). rewrite k17_trimmed_same. reflexivity. Qed.

Lemma scan_cp : forall l acc letters rem,
  parse_scheme_loop CUrlParser acc l = Some (rev acc ++ letters, rem) ->
  exists raw, filter nt l = raw ++ 58 :: strip_tnl rem /\ length raw = length letters
              /\ k17_skip (S (length letters)) l = rem.
Proof.
  induction l as [|c r IH]; intros acc letters rem H; cbn [parse_scheme_loop] in H.
  - cbn [ctx_eqb] in H. discriminate.
  - cbn [filter]. unfold C02_Enc.not_tnl at 1. cbn [k17_skip]. change (k17_tnl c) with (is_tnl c).
    destruct (is_tnl c) eqn:Et; cbn [negb]; [exact (IH _ _ _ H)|].
    destruct (is_lower c || is_digit c || (c =? 43) || (c =? 45) || (c =? 46)) eqn:E1.
    { destruct (parse_scheme_loop_out _ _ _ _ H) as (s' & Hs & _). cbn [rev] in Hs.
      rewrite <- app_assoc in Hs. apply app_inv_head in Hs. cbn [app] in Hs. subst letters.
      destruct (IH (c :: acc) s' rem) as (raw & F1 & F2 & F3); [cbn [rev]; rewrite <- app_assoc; exact H|].
      exists (c :: raw). cbn [app length]. rewrite F1, F2. split; [reflexivity|]. split; [reflexivity|exact F3]. }
    destruct (is_upper c) eqn:E2.
    { destruct (parse_scheme_loop_out _ _ _ _ H) as (s' & Hs & _). cbn [rev] in Hs.
      rewrite <- app_assoc in Hs. apply app_inv_head in Hs. cbn [app] in Hs. subst letters.
      destruct (IH ((c + 32) :: acc) s' rem) as (raw & F1 & F2 & F3); [cbn [rev]; rewrite <- app_assoc; exact H|].
      exists (c :: raw). cbn [app length]. rewrite F1, F2. split; [reflexivity|]. split; [reflexivity|exact F3]. }
    destruct (c =? 58) eqn:E3; [|discriminate]. apply N.eqb_eq in E3. subst c.
    injection H as Hl Hr. subst rem.
    assert (letters = []) as ->.
    { apply (f_equal (@length N)) in Hl. rewrite app_length in Hl. destruct letters; [reflexivity|cbn [length] in Hl; lia]. }
    exists []. cbn [app length k17_skip]. split; [reflexivity|]. split; [reflexivity|]. destruct r; reflexivity.
Qed.

Lemma scheme_text s rem : parse_scheme CUrlParser (input_new_trim_c0 s) = Some (s_data, rem) ->
  skipn 5 (k17_cleaned s) = strip_tnl rem /\ k17_skip 5 (k17_trimmed s) = rem.
Proof.
  intros Hp. unfold parse_scheme in Hp.
  destruct (inp_starts_with_pred is_alpha (input_new_trim_c0 s)); [|discriminate].
  destruct (scan_cp _ [] s_data rem Hp) as (raw & F1 & F2 & F3).
  rewrite k17_cleaned_same. change (k17_trimmed s) with (input_new_trim_c0 s). rewrite F1. split; [|exact F3].
  do 5 (destruct raw as [|? raw]; try discriminate F2). reflexivity.
Qed.

(* the first code point the parser sees *)
Lemma strip_tnl_next rem : inp_next rem = match strip_tnl rem with [] => None | c :: _ => match inp_next rem with Some (_, r) => Some (c, r) | None => None end end.
Proof.
  unfold inp_next, strip_tnl. induction rem as [|c r IH]; [reflexivity|]. cbn [Parser.drop_while filter].
  unfold C02_Enc.not_tnl at 1 3. destruct (is_tnl c); cbn [negb]; [exact IH|reflexivity].
Qed.

Lemma k17_header_split Hc Rc : ~ In 44 Hc -> ~ In 35 Hc -> k17_header (strip_tnl (Hc ++ 44 :: Rc)) = strip_tnl Hc.
Proof.
  induction Hc as [|c r IH]; intros H1 H2.
  - cbn [app]. unfold strip_tnl. cbn [filter]. change (nt 44) with true. cbv iota. reflexivity.
  - cbn [app]. unfold strip_tnl. cbn [filter]. destruct (nt c); [|apply IH; intros Hin; [apply H1|apply H2]; right; exact Hin].
    cbn [k17_header].
    destruct (c =? 44) eqn:E1; [apply N.eqb_eq in E1; exfalso; apply H1; left; exact E1|].
    destruct (c =? 35) eqn:E2; [apply N.eqb_eq in E2; exfalso; apply H2; left; exact E2|].
    cbn [orb]. f_equal. apply IH; intros Hin; [apply H1|apply H2]; right; exact Hin.
Qed.

Lemma k17_body_split Hc Rc : ~ In 44 Hc -> ~ In 35 Hc -> k17_body (Hc ++ 44 :: Rc) = Some Rc.
Proof.
  induction Hc as [|c r IH]; intros H1 H2; [reflexivity|]. cbn [app k17_body].
  destruct (c =? 44) eqn:E1; [apply N.eqb_eq in E1; exfalso; apply H1; left; exact E1|].
  destruct (c =? 35) eqn:E2; [apply N.eqb_eq in E2; exfalso; apply H2; left; exact E2|].
  apply IH; intros Hin; [apply H1|apply H2]; right; exact Hin.
Qed.

(* C17 outside Known_C17, for every string the parser reads the scheme "data" from *)
Theorem outside_known_is_fetch dbg hp ho hd s rem u : usv_list s ->
  parse_scheme CUrlParser (input_new_trim_c0 s) = Some (s_data, rem) ->
  parse_url dbg hp ho hd None None s = POk u ->
  ~ Known_C17 s ->
  fetch_view (process_and_decode s) = fetch_of_url u.
Proof.
  intros Hs Hp Hu Hk.
  assert (Hk0 : known_c17 s = 0).
  { unfold Known_C17 in Hk. destruct (N.eq_dec (known_c17 s) 0) as [E|E]; [exact E|contradiction]. }
  destruct (scheme_text s rem Hp) as [T1 T2]. unfold known_c17 in Hk0. rewrite T1, T2 in Hk0.
  (* rem is made of scalar values *)
  pose proof (parse_scheme_rem_usv s _ rem Hs Hp) as Hur.
  (* K1: not '/' *)
  assert (H47 : inp_split_prefix_char 47 rem = None).
  { unfold inp_split_prefix_char. rewrite strip_tnl_next. destruct (strip_tnl rem) as [|c r]; [reflexivity|].
    destruct (c =? 47) eqn:E; [discriminate Hk0|]. destruct (inp_next rem) as [[d r']|]; [rewrite E|]; reflexivity. }
  apply (opaque_is_fetch dbg hp ho hd s rem u Hs Hp H47 Hu).
  intros h B HB.
  destruct (comma_split rem h B Hur HB) as (Hc & Rc & Er & Eh & EB & Hnc & Hc35 & Uh & Ur).
  rewrite Eh, EB, filter_not_tnl_utf8, query_space_utf8, split_escape_utf8 by (try apply usv_strip; assumption).
  rewrite Er in Hk0. rewrite (k17_header_split Hc Rc Hnc Hc35), (k17_body_split Hc Rc Hnc Hc35) in Hk0.
  destruct (strip_tnl (Hc ++ 44 :: Rc)) as [|c r] eqn:Est.
  - exfalso. assert (Hin : In 44 (strip_tnl (Hc ++ 44 :: Rc))).
    { unfold strip_tnl. apply filter_In. split; [apply in_or_app; right; left; reflexivity|reflexivity]. }
    rewrite Est in Hin. exact Hin.
  - destruct (c =? 47); [discriminate Hk0|].
    destruct (k17_query_space (strip_tnl Hc)); [discriminate Hk0|].
    destruct (k17_split_escape Rc); [discriminate Hk0|]. split; reflexivity.
Qed.

(* scheme_of_parse: what separates outside_known_is_fetch from C17_statement, namely that the scheme of
   the URL the parser returns is the scheme text parse_scheme read (it turns "url_is_data u" into
   "parse_scheme read data").  It is the hypothesis under which statement_modulo_scheme is stated; it
   holds for every URL (C17_Final.scheme_of_parse_holds, from C17_Scheme.parse_url_scheme), whence
   C17_Final.c17_statement_holds : C17_statement. *)
Definition scheme_of_parse : Prop :=
  forall (dbg : bool) (hp ho : list N -> result host) (hd : host -> list N) (s sch rem : list N) (u : url),
    usv_list s ->
    parse_scheme CUrlParser (input_new_trim_c0 s) = Some (sch, rem) ->
    parse_url dbg hp ho hd None None s = POk u -> url_is_data u = true -> sch = s_data.

Theorem statement_modulo_scheme : scheme_of_parse -> C17_statement.
Proof.
  intros G dbg hp ho hd s u Hs Hu Hd Hk.
  destruct (parse_scheme CUrlParser (input_new_trim_c0 s)) as [[sch rem]|] eqn:Hp.
  - pose proof (G dbg hp ho hd s sch rem u Hs Hp Hu Hd) as ->.
    exact (outside_known_is_fetch dbg hp ho hd s rem u Hs Hp Hu Hk).
  - unfold parse_url in Hu. rewrite Hp in Hu. discriminate Hu.
Qed.
