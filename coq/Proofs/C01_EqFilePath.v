(* Proofs/C01_EqFilePath.v - C01 equivalence, file scheme: the path loop of parser.rs for SchemeType::File
   computes, on its own abstract state (closed segments, buffer), exactly the path state of the Standard for a
   file URL (`spath_f` of Proofs/C01_EqFileSpec.v, both drive-letter quirks included), followed by the collapse
   of the leading slashes of the path (`strip_f`: parser.rs:1377, findings F-C01-2/3), unless
     - a ".." meets a drive-letter-shaped last segment (F-C01-5/9: never popped),
     - a drive letter becomes the first segment while the URL has a host (F-C01-1: the host is dropped),
     - the first segment goes on after a drive-letter prefix (F-C01-7: a tab or newline at that place makes
       the model insert a '/'; excluded on the cleaned text, whatever the raw text is);
   `fpath_ok` computes that on the Standard's own state. *)
From RU Require Import Base.Prelude Base.Utf8 Gen.Tables Model.PercentEncoding Model.UrlRecord Model.Parser
  Spec.Whatwg Proofs.ListN Proofs.C02_Parts Proofs.C02_Opaque Proofs.C02_Path Proofs.C02_PathL1
  Proofs.C08_Input Proofs.C01_EqRun Proofs.C01_EqDots Proofs.C01_EqPath Proofs.C01_EqAuthSpec
  Proofs.C01_EqSpSpec Proofs.C01_EqFileSpec.

(* drive letters: the two sides use the same tests *)
Lemma is_wdl_agree s : is_wdl s = is_windows_drive_letter s.
Proof.
  unfold is_wdl, is_windows_drive_letter, starts_with_wdl.
  destruct s as [|a [|b [|c r]]]; cbn [length Nat.eqb andb]; try reflexivity.
  rewrite andb_true_r. reflexivity.
Qed.

Lemma is_nwdl_agree s : is_normalized_wdl s = is_normalized_windows_drive_letter s.
Proof.
  unfold is_normalized_wdl, is_wdl, is_normalized_windows_drive_letter, starts_with_wdl.
  destruct s as [|a [|b [|c r]]]; cbn [length Nat.eqb andb]; try reflexivity.
  rewrite andb_true_r. destruct (is_alpha a); cbn [andb]; [|reflexivity].
  destruct (b =? 58) eqn:E; [reflexivity|]. cbn [orb]. apply andb_false_r.
Qed.

Lemma nwdl_last_is_wdl t : is_normalized_wdl t = true -> starts_with_wdl (t ++ [47]) = true.
Proof.
  unfold is_normalized_wdl, is_wdl, starts_with_wdl.
  destruct t as [|a [|b [|c r]]]; cbn [length Nat.eqb andb app]; try discriminate.
  intros H. apply andb_true_iff in H. destruct H as [H _]. rewrite andb_true_r in H. rewrite H. reflexivity.
Qed.

(* a drive-letter prefix: alpha, then ':' or '|' *)
Definition wdl_pref (B : list N) : bool :=
  match B with a :: b :: _ => is_alpha a && ((b =? 58) || (b =? 124)) | _ => false end.

Lemma nwdl_pref cur x : is_normalized_wdl cur = true -> wdl_pref (cur ++ x) = true.
Proof.
  unfold is_normalized_wdl, is_wdl, starts_with_wdl, wdl_pref.
  destruct cur as [|a [|b [|c r]]]; cbn [length Nat.eqb andb app]; try discriminate.
  intros H. apply andb_true_iff in H. destruct H as [H _]. rewrite andb_true_r in H. exact H.
Qed.

(* a text that starts with '/', has ':' nowhere near the second place, or is longer than two is no drive letter *)
Lemma nwdl_head_not_alpha a X : is_alpha a = false -> is_normalized_wdl (a :: X) = false.
Proof.
  intros H. unfold is_normalized_wdl, is_wdl, starts_with_wdl. destruct X as [|b [|c r]]; cbn [length Nat.eqb andb]; try reflexivity.
  rewrite H. reflexivity.
Qed.
Lemma nwdl_second a b X : (b =? 58) = false -> is_normalized_wdl (a :: b :: X) = false.
Proof. intros H. unfold is_normalized_wdl. rewrite H. apply andb_false_r. Qed.
Lemma nwdl_long a b c X : is_normalized_wdl (a :: b :: c :: X) = false.
Proof. reflexivity. Qed.

Lemma nwdl_segs_text s r cur : is_normalized_wdl (segs_text (s :: r) ++ cur) = false.
Proof.
  unfold segs_text. cbn [map concat]. rewrite <- !app_assoc.
  destruct s as [|x [|y s']]; cbn [app].
  - apply nwdl_head_not_alpha. reflexivity.
  - apply nwdl_second. reflexivity.
  - destruct s' as [|z s'']; cbn [app]; apply nwdl_long.
Qed.

(* one end of segment on the abstract state *)
(* the only segment is a normalized Windows drive letter: ".." pops it on neither side *)
Definition sole_nwdl (P : list (list N)) : bool :=
  match P with [p0] => is_normalized_windows_drive_letter p0 | _ => false end.
(* no ".." meets a drive-letter-shaped last segment - unless that segment is the sole normalized drive letter *)
Definition fin_ok2 (segs : list (list N)) (cur : list N) : bool :=
  fin_ok segs cur || (is_double_dot_segment cur && sole_nwdl segs).

Definition fin_step_f (segs : list (list N)) (cur : list N) (ews : bool) : list (list N) * list N :=
  if is_double_dot_segment cur then (shorten_f segs, [])
  else if is_single_dot_segment cur then (segs, [])
  else if ews then (segs ++ [norm_first segs cur], []) else (segs, norm_first segs cur).

Lemma shorten_f_plain P : last_is_wdl P = false -> shorten_f P = removelast P.
Proof.
  intros H. unfold shorten_f. destruct P as [|p0 [|p1 P']]; try reflexivity.
  rewrite <- is_nwdl_agree. destruct (is_normalized_wdl p0) eqn:E; [|reflexivity].
  unfold last_is_wdl in H. cbn [rev app] in H. rewrite (nwdl_last_is_wdl p0 E) in H. discriminate H.
Qed.

Lemma fin_f_of_step segs cur sep :
  fin_f segs cur sep = if sep then fst (fin_step_f segs cur sep) else fst (fin_step_f segs cur sep) ++ [snd (fin_step_f segs cur sep)].
Proof.
  unfold fin_f, fin_step_f. destruct (is_double_dot_segment cur).
  - destruct sep; reflexivity.
  - destruct (is_single_dot_segment cur); destruct sep; reflexivity.
Qed.

Lemma sole_nwdl_shorten P : sole_nwdl P = true -> shorten_f P = P.
Proof.
  unfold sole_nwdl, shorten_f. destruct P as [|p0 [|p1 P']]; try discriminate. intros H. rewrite H. reflexivity.
Qed.

Lemma fin_step_f_sep_last segs B : snd (fin_step_f segs B true) = [].
Proof. unfold fin_step_f. destruct (is_double_dot_segment B); [reflexivity|]. destruct (is_single_dot_segment B); reflexivity. Qed.

Lemma norm_first_no_slash P B : no_slash B = true -> no_slash (norm_first P B) = true.
Proof.
  intros H. unfold norm_first. destruct (is_nil P && is_windows_drive_letter B); [|exact H].
  destruct B as [|a [|b r]]; try exact H. unfold no_slash in *. cbn [forallb] in *.
  apply andb_true_iff in H. destruct H as [Ha H]. apply andb_true_iff in H. destruct H as [_ Hr]. rewrite Ha, Hr. reflexivity.
Qed.

Lemma fin_step_f_no_slash segs B ews : forallb no_slash segs = true -> no_slash B = true ->
  forallb no_slash (fst (fin_step_f segs B ews)) = true /\ no_slash (snd (fin_step_f segs B ews)) = true.
Proof.
  intros Hs HB. unfold fin_step_f. destruct (is_double_dot_segment B).
  - split; [|reflexivity]. cbn [fst]. unfold shorten_f. destruct segs as [|p0 [|p1 P']]; try (apply no_slash_removelast; exact Hs).
    destruct (is_normalized_windows_drive_letter p0); [exact Hs | reflexivity].
  - destruct (is_single_dot_segment B); [split; [exact Hs | reflexivity]|].
    pose proof (norm_first_no_slash segs B HB) as HN.
    destruct ews; cbn [fst snd]; [|split; assumption].
    split; [|reflexivity]. rewrite forallb_app, Hs. cbn [forallb]. rewrite HN. reflexivity.
Qed.

(* finish_segment, exactly (file scheme) *)
Section FinishExactF.
Variable pre : list N.
Variable dbg : bool.
Notation ps := (nlen pre).
Notation BsP := (Bs pre).

Lemma Bs_len_first segs : (nlen (BsP segs) =? ps + 1) = is_nil segs.
Proof.
  unfold Bs. rewrite !nlen_app. destruct segs as [|s r]; cbn [is_nil].
  - unfold segs_text. cbn [map concat]. rewrite nlen_nil. unfold nlen. cbn [length]. lia.
  - unfold segs_text. cbn [map concat]. rewrite !nlen_app. unfold nlen at 2 4. cbn [length]. lia.
Qed.

Lemma finish_exact_f segs cur (ews : bool) hh :
  forallb no_slash segs = true -> fin_ok2 segs cur = true ->
  (hh && is_nil segs && is_windows_drive_letter cur) = false ->
  finish_segment dbg STFile ps (BsP segs ++ cur ++ (if ews then [47] else [])) (nlen (BsP segs)) ews hh
  = POk (BsP (fst (fin_step_f segs cur ews)) ++ snd (fin_step_f segs cur ews), hh).
Proof.
  intros Hsegs Hok Hhq. unfold fin_step_f, fin_ok2, fin_ok in *. rewrite <- double_dot_agree in *. rewrite <- single_dot_agree.
  set (s1 := BsP segs ++ cur ++ (if ews then [47] else [])).
  assert (truncate s1 (nlen (BsP segs)) = BsP segs) as Htr by (unfold truncate, s1; apply nfirstn_app_len).
  destruct (Bs_ends pre segs) as [X EX].
  assert (ends_with_byte 47 (BsP segs) = true) as Hends by (rewrite EX; apply ends_with_byte_snoc).
  pose proof (finish_slice pre segs cur ews) as Hslice. fold s1 in Hslice.
  unfold finish_segment. rewrite Hslice. cbn [of_option pbind].
  destruct (is_double_dot cur) eqn:Edd.
  - (* double dot *)
    cbn [andb] in Hok.
    unfold s1 at 1. rewrite finish_dbg_ok. cbn [pbind fst snd]. rewrite Htr, Hends. cbn [andb].
    destruct (sole_nwdl segs) eqn:Esole.
    { (* the sole segment is a normalized drive letter: nothing is popped on either side *)
      rewrite (sole_nwdl_shorten segs Esole).
      destruct segs as [|t [|t1 r1]]; try discriminate Esole. cbn [sole_nwdl] in Esole. rewrite <- is_nwdl_agree in Esole.
      cbn [forallb] in Hsegs. rewrite andb_true_r in Hsegs.
      assert (BsP [t] = (pre ++ [47]) ++ t ++ [47]) as EB by (unfold Bs, segs_text; cbn [map concat]; rewrite app_nil_r; reflexivity).
      assert (nlen (BsP [t]) = ps + nlen t + 2) as LB by (rewrite EB, !nlen_app; unfold nlen at 2 4; cbn [length]; lia).
      rewrite (lscbr_snoc pre [] t Hsegs : last_slash_can_be_removed (BsP [t]) ps = _), (nwdl_last_is_wdl t Esole). cbn [negb].
      assert (Parser.shorten_path STFile ps (BsP [t]) = POk (BsP [t])) as Hsh.
      { unfold Parser.shorten_path, pop_path. rewrite LB.
        replace (ps + nlen t + 2 =? ps) with false by lia. cbn [st_is_file andb].
        assert (nskipn ps (BsP [t]) = (47 :: t) ++ 47 :: []) as Esk.
        { rewrite EB. rewrite <- !app_assoc. rewrite nskipn_app_len. reflexivity. }
        rewrite Esk. cbn [app]. rewrite (nwdl_head_not_alpha 47 (t ++ [47]) eq_refl).
        replace (ps <? ps + nlen t + 2) with true by lia.
        change (47 :: t ++ [47]) with ((47 :: t) ++ 47 :: []).
        rewrite (rfind_app_last 47 (47 :: t) []) by reflexivity.
        replace (ps + nlen (47 :: t) + 1) with (nlen (BsP [t])) by (rewrite LB, nlen_cons; lia).
        rewrite nskipn_all by lia. replace (is_normalized_wdl []) with false by reflexivity. unfold truncate.
        rewrite nfirstn_all by lia. reflexivity. }
      rewrite Hsh. cbn [pbind]. rewrite Hends. rewrite andb_false_r. rewrite app_nil_r. reflexivity. }
    rewrite orb_false_r in Hok. apply negb_true_iff in Hok. rewrite (shorten_f_plain segs Hok).
    unfold last_is_wdl in Hok.
    destruct (rev segs) as [|t r] eqn:Er.
    + (* no segment yet: nothing to pop *)
      assert (segs = []) as -> by (rewrite <- (rev_involutive segs), Er; reflexivity).
      rewrite lscbr_nil, shorten_Bs_nil. cbn [pbind]. rewrite Hends. rewrite andb_false_r. cbn [removelast].
      rewrite app_nil_r. reflexivity.
    + assert (segs = rev r ++ [t]) as Es by (rewrite <- (rev_involutive segs), Er; reflexivity).
      set (segs0 := rev r) in *. rewrite Es in *. rewrite forallb_snoc in Hsegs.
      apply andb_true_iff in Hsegs. destruct Hsegs as [Hsegs0 Htn].
      assert (is_normalized_wdl t = false) as Htw.
      { destruct (is_normalized_wdl t) eqn:E; [|reflexivity]. rewrite (nwdl_last_is_wdl t E) in Hok. discriminate Hok. }
      rewrite removelast_last, (lscbr_snoc pre segs0 t Htn), Hok. cbn [negb].
      rewrite Bs_snoc_cut, (shorten_Bs_snoc pre STFile segs0 t Htn) by (rewrite Htw; reflexivity). cbn [pbind].
      destruct (Bs_ends pre segs0) as [X0 EX0].
      rewrite EX0. rewrite ends_with_byte_snoc. rewrite andb_false_r. rewrite app_nil_r. reflexivity.
  - destruct (is_single_dot cur) eqn:Esd.
    + rewrite Htr, Hends. cbn [fst snd]. rewrite app_nil_r. reflexivity.
    + cbn [st_is_file andb]. rewrite Bs_len_first. rewrite is_wdl_agree. unfold norm_first.
      destruct (is_nil segs && is_windows_drive_letter cur) eqn:Eq.
      * (* a drive letter as the first segment: normalized, has_host cleared (it is false already) *)
        apply andb_true_iff in Eq. destruct Eq as [En Ew]. rewrite En, Ew in Hhq. rewrite !andb_true_r in Hhq. subst hh.
        destruct segs as [|g gs]; [|discriminate En].
        destruct cur as [|a [|b [|c0 r0]]]; try discriminate Ew.
        rewrite Htr. destruct ews; cbn [fst snd].
        -- rewrite app_nil_r, Bs_snoc. reflexivity.
        -- rewrite app_nil_r. reflexivity.
      * unfold s1. destruct ews; cbn [fst snd].
        -- rewrite app_nil_r, Bs_snoc. reflexivity.
        -- rewrite app_nil_r. reflexivity.
Qed.

End FinishExactF.

(* the collapse of the leading slashes on the segment list *)
(* parser.rs:1377 on the list: leading empty segments are dropped (one empty segment is left if nothing else is) *)
Fixpoint strip_f (P : list (list N)) : list (list N) :=
  match P with
  | [] => [[]]
  | s :: r => if is_nil s then strip_f r else P
  end.

Definition flat (P : list (list N)) : list N := flat_map (fun s => 47 :: s) P.

Lemma strip_flat P : forallb no_slash P = true -> 47 :: drop_while is_slash (flat P) = flat (strip_f P).
Proof.
  induction P as [|s r IH]; intros H; [reflexivity|].
  cbn [forallb] in H. apply andb_true_iff in H. destruct H as [Hs Hr].
  unfold flat in *. cbn [strip_f flat_map app drop_while]. replace (is_slash 47) with true by reflexivity.
  destruct s as [|x s']; cbn [is_nil app].
  - exact (IH Hr).
  - cbn [drop_while flat_map app]. unfold no_slash in Hs. cbn [forallb] in Hs. apply andb_true_iff in Hs. destruct Hs as [Hx _].
    unfold is_slash. apply negb_true_iff in Hx. rewrite Hx. reflexivity.
Qed.

Lemma fixup_flat pre P : forallb no_slash P = true ->
  file_path_fixup STFile (nlen pre) (pre ++ flat P) = pre ++ flat (strip_f P).
Proof.
  intros H. unfold file_path_fixup. cbn [st_is_file]. rewrite nskipn_app_len, nfirstn_app_len. f_equal.
  exact (strip_flat P H).
Qed.

(* the path loop, exactly *)
(* (i) no ".." meets a drive-letter-shaped last segment - unless it is the sole segment and a normalized drive letter,
   which neither side pops (fin_ok2) -, (ii) no drive letter becomes the first segment of a URL with a host *)
Definition fin_okf (hh : bool) (P : list (list N)) (B : list N) : bool :=
  fin_ok2 P B && negb (hh && is_nil P && is_windows_drive_letter B).

Fixpoint fpath_ok (hh : bool) (t : list N) (P : list (list N)) (B : list N) : bool :=
  match t with
  | [] => fin_okf hh P B
  | c :: r => if is_sl c then fin_okf hh P B && fpath_ok hh r (fin_f P B true) []
              else if is_qh c then fin_okf hh P B
              else negb (is_nil P && wdl_pref B) && fpath_ok hh r P (B ++ utf8_percent_encode_cp in_path_set c)
  end.

Section LoopExactF.
Variable pre : list N.
Variable dbg : bool.
Notation ps := (nlen pre).
Notation loop := (parse_path_loop dbg CUrlParser STFile ps).
Notation BsP := (Bs pre).
Notation enc pend := (encode T_PATH (utf8_encode (rev pend))).

Lemma sep_file c : sep STFile c = is_sl c.
Proof. unfold sep, is_sl. rewrite andb_true_r. reflexivity. Qed.

Lemma push_pending_shape_f segs cur pend : usv_list pend ->
  push_pending CUrlParser STFile (BsP segs ++ cur) pend = BsP segs ++ (cur ++ enc pend).
Proof. intros H. rewrite push_pending_eq by exact H. rewrite <- app_assoc. reflexivity. Qed.

Lemma loop_cons_plain_f c r segs cur pend hh : is_tnl c = false -> is_sl c = false -> C02_Parts.is_qh c = false ->
  (is_nil segs && is_normalized_wdl cur) = false ->
  loop (c :: r) (BsP segs ++ cur) (nlen (BsP segs)) pend hh = loop r (BsP segs ++ cur) (nlen (BsP segs)) (c :: pend) hh.
Proof.
  intros Ht Hs Hq Hn. cbn [parse_path_loop]. rewrite Ht. cbn [ctx_eqb negb st_is_special st_is_file andb].
  unfold is_sl in Hs. rewrite andb_true_r. rewrite Hs. unfold C02_Parts.is_qh in Hq. rewrite Hq. cbn [andb].
  assert (nskipn (ps + 1) (BsP segs ++ cur) = segs_text segs ++ cur) as ->.
  { unfold Bs. rewrite <- !app_assoc. replace (ps + 1) with (nlen (pre ++ [47])) by (rewrite nlen_app; reflexivity).
    rewrite app_assoc. rewrite nskipn_app_len. reflexivity. }
  assert (is_normalized_wdl (segs_text segs ++ cur) = false) as ->.
  { destruct segs as [|s0 sr]; [exact Hn | apply nwdl_segs_text]. }
  rewrite andb_false_r. reflexivity.
Qed.

Theorem loop_exact_f l : forall segs cur pend hh, usv_list l -> pend_ok pend ->
  forallb no_slash segs = true -> no_slash cur = true ->
  fpath_ok hh (ntnl l) segs (cur ++ enc pend) = true ->
  exists segs' last',
    loop l (BsP segs ++ cur) (nlen (BsP segs)) pend hh
    = POk (file_path_fixup STFile ps (BsP segs' ++ last'), hh, cbb_rest l)
    /\ fst (spath_f (ntnl l) segs (cur ++ enc pend)) = segs' ++ [last']
    /\ snd (spath_f (ntnl l) segs (cur ++ enc pend)) = ntnl (cbb_rest l).
Proof.
  assert (forall l0 segs cur pend hh,
            match l0 with [] => True | c :: _ => C02_Parts.is_qh c = true /\ is_tnl c = false end ->
            pend_ok pend -> forallb no_slash segs = true -> no_slash cur = true ->
            fin_okf hh segs (cur ++ enc pend) = true ->
            loop l0 (BsP segs ++ cur) (nlen (BsP segs)) pend hh
            = POk (file_path_fixup STFile ps (BsP (fst (fin_step_f segs (cur ++ enc pend) false)) ++ snd (fin_step_f segs (cur ++ enc pend) false)), hh, l0)) as Hend.
  { intros l0 segs cur pend hh Hl Hp Hsegs Hn Hok. unfold fin_okf in Hok. apply andb_true_iff in Hok. destruct Hok as [Hok Hq].
    apply negb_true_iff in Hq.
    rewrite loop_stop by exact Hl. rewrite push_pending_shape_f by (destruct Hp; assumption).
    pose proof (finish_exact_f pre dbg segs (cur ++ enc pend) false hh Hsegs Hok Hq) as Hf.
    rewrite app_nil_r in Hf. rewrite Hf. reflexivity. }
  assert (forall r segs cur pend hh, pend_ok pend -> forallb no_slash segs = true -> no_slash cur = true ->
            fin_okf hh segs (cur ++ enc pend) = true ->
            (' (s2, hh') <~ finish_segment dbg STFile ps
                              (push_pending CUrlParser STFile (BsP segs ++ cur) pend ++ [47]) (nlen (BsP segs)) true hh ;;
             loop r s2 (nlen s2) [] hh')
            = loop r (BsP (fin_f segs (cur ++ enc pend) true) ++ []) (nlen (BsP (fin_f segs (cur ++ enc pend) true))) [] hh
              /\ forallb no_slash (fin_f segs (cur ++ enc pend) true) = true) as Hsep.
  { intros r segs cur pend hh Hp Hsegs Hn Hok. unfold fin_okf in Hok. apply andb_true_iff in Hok. destruct Hok as [Hok1 Hq].
    apply negb_true_iff in Hq.
    rewrite push_pending_shape_f by (destruct Hp; assumption).
    assert (no_slash (cur ++ enc pend) = true) as Hn'.
    { rewrite no_slash_app, Hn, (enc_no_slash pend Hp). reflexivity. }
    pose proof (finish_exact_f pre dbg segs (cur ++ enc pend) true hh Hsegs Hok1 Hq) as Hf.
    rewrite <- app_assoc. rewrite Hf. cbn [pbind]. rewrite fin_step_f_sep_last, app_nil_r.
    destruct (fin_step_f_no_slash segs (cur ++ enc pend) true Hsegs Hn') as [Hs1 _].
    rewrite (fin_f_of_step _ _ true). split; [rewrite app_nil_r; reflexivity | exact Hs1]. }
  induction l as [|c r IH]; intros segs cur pend hh Hu Hp Hsegs Hn Hok.
  - cbn [ntnl filter fpath_ok spath_f fst snd cbb_rest] in *.
    eexists. eexists. split; [apply (Hend [] segs cur pend hh I Hp Hsegs Hn Hok)|].
    unfold fin_okf in Hok. apply andb_true_iff in Hok. destruct Hok as [Hok _].
    split; [apply (fin_f_of_step _ _ false) | reflexivity].
  - apply usv_cons in Hu. destruct Hu as [Huc Hur]. cbn [cbb_rest].
    destruct (is_tnl c) eqn:Et.
    + rewrite ntnl_cons_tnl in * by exact Et.
      rewrite loop_tnl by exact Et. rewrite push_pending_shape_f by (destruct Hp; assumption).
      assert (pend_ok []) as Hp0 by (split; [constructor | reflexivity]).
      assert (no_slash (cur ++ enc pend) = true) as Hn'.
      { rewrite no_slash_app, Hn, (enc_no_slash pend Hp). reflexivity. }
      assert ((cur ++ enc pend) ++ enc [] = cur ++ enc pend) as E0 by (cbn; apply app_nil_r).
      destruct (IH segs (cur ++ enc pend) [] hh Hur Hp0 Hsegs Hn') as (segs' & last' & G1 & G2 & G3).
      { rewrite E0. exact Hok. }
      rewrite E0 in G2, G3. exists segs', last'. split; [exact G1 | split; assumption].
    + rewrite ntnl_cons in * by exact Et.
      destruct (C02_Parts.is_qh c) eqn:Eq.
      * assert (is_sl c = false) as Esl by (unfold C02_Parts.is_qh in Eq; unfold is_sl; lia).
        cbn [fpath_ok spath_f] in *. rewrite Esl in *. change (is_qh c) with (C02_Parts.is_qh c) in *. rewrite Eq in *.
        cbn [fst snd].
        eexists. eexists. split; [apply (Hend (c :: r) segs cur pend hh (conj Eq Et) Hp Hsegs Hn Hok)|].
        unfold fin_okf in Hok. apply andb_true_iff in Hok. destruct Hok as [Hok _].
        split; [apply (fin_f_of_step _ _ false)|]. rewrite ntnl_cons by exact Et. reflexivity.
      * destruct (is_sl c) eqn:Esl.
        -- cbn [fpath_ok spath_f] in *. rewrite Esl in *.
           apply andb_true_iff in Hok. destruct Hok as [Hok1 Hok2].
           assert (pend_ok []) as Hp0 by (split; [constructor | reflexivity]).
           destruct (Hsep r segs cur pend hh Hp Hsegs Hn Hok1) as [Es Hs1].
           rewrite (loop_sep dbg STFile ps c r _ _ pend hh Et) by (rewrite sep_file; exact Esl). rewrite Es.
           destruct (IH (fin_f segs (cur ++ enc pend) true) [] [] hh Hur Hp0 Hs1 eq_refl) as (segs' & last' & G1 & G2 & G3).
           { exact Hok2. }
           exists segs', last'. split; [exact G1 | split; assumption].
        -- cbn [fpath_ok spath_f] in *. rewrite Esl in *. change (is_qh c) with (C02_Parts.is_qh c) in *. rewrite Eq in *.
           apply andb_true_iff in Hok. destruct Hok as [Hpref Hok].
           assert ((is_nil segs && is_normalized_wdl cur) = false) as Hnw.
           { apply negb_true_iff in Hpref. destruct (is_nil segs); [|reflexivity]. cbn [andb] in *.
             destruct (is_normalized_wdl cur) eqn:E; [|reflexivity]. rewrite (nwdl_pref cur _ E) in Hpref. discriminate Hpref. }
           rewrite (loop_cons_plain_f c r segs cur pend hh Et Esl Eq Hnw).
           assert (pend_ok (c :: pend)) as Hp'.
           { destruct Hp as [Hp1 Hp2]. split; [apply usv_cons; split; assumption|].
             unfold no_byte in *. cbn [forallb]. unfold is_sl in Esl. apply orb_false_iff in Esl. destruct Esl as [E47 _].
             rewrite E47, Hp2. reflexivity. }
           rewrite <- app_assoc, <- enc_snoc in *.
           exact (IH segs cur (c :: pend) hh Hur Hp' Hsegs Hn Hok).
Qed.

End LoopExactF.
