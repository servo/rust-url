(* Proofs/C01_EqSpModel.v - model side of the C01 equivalence for special non-file schemes: what
   inp_count_matching (the slashes after "scheme:"), parse_userinfo, parse_host (host_scan with '\' as a
   terminator, the non-empty-host rule) and parse_port (default-port table) of parser.rs compute on the
   raw remaining input, in terms of the cuts the Standard's states make on the cleaned text
   (Proofs/C01_EqSpSpec.v). *)
From RU Require Import Base.Prelude Model.HostT Model.UrlRecord Model.Parser Model.Setters Spec.Whatwg
  Proofs.C02_Parts Proofs.C02_Opaque Proofs.C01_Tables Proofs.C08_Input Proofs.C01_EqApi Proofs.C01_EqAuthSpec
  Proofs.C01_EqAuthModel Proofs.C01_EqSpSpec Proofs.C02_AuthSp.

(* the slashes after "scheme:" *)
Lemma count_matching_ntnl f l :
  ntnl (snd (inp_count_matching f l)) = drop_leading f (ntnl l)
  /\ (fst (inp_count_matching f l) = 0 -> drop_leading f (ntnl l) = ntnl l).
Proof.
  induction l as [|c r IH]; [split; reflexivity|]. cbn [inp_count_matching].
  destruct (is_tnl c) eqn:Et.
  - rewrite ntnl_cons_tnl by exact Et. destruct (inp_count_matching f r) as [k rm]. cbn [fst snd] in IH.
    destruct IH as [IH1 IH2]. destruct k as [|pk]; cbn [fst snd].
    + rewrite ntnl_cons_tnl by exact Et. rewrite (IH2 eq_refl). split; [reflexivity | intros _; reflexivity].
    + split; [exact IH1 | intros H; discriminate H].
  - rewrite ntnl_cons by exact Et. cbn [drop_leading]. destruct (f c) eqn:Ef.
    + destruct (inp_count_matching f r) as [k rm]. cbn [fst snd] in *. destruct IH as [IH1 _].
      split; [exact IH1 | intros H; lia].
    + cbn [fst snd]. rewrite ntnl_cons by exact Et. split; [reflexivity | intros _; reflexivity].
Qed.

Lemma count_matching_usv' f l : usv_list l -> usv_list (snd (inp_count_matching f l)).
Proof.
  induction l as [|c r IH]; intros Hu; [exact Hu|]. pose proof Hu as Hu0. apply usv_cons in Hu. destruct Hu as [Hc Hr].
  cbn [inp_count_matching]. destruct (is_tnl c).
  - destruct (inp_count_matching f r) as [k rm]. cbn [snd] in IH. destruct k; cbn [snd]; [exact Hu0 | exact (IH Hr)].
  - destruct (f c); [|exact Hu0]. destruct (inp_count_matching f r) as [k rm]. cbn [snd] in *. exact (IH Hr).
Qed.

(* parse_userinfo, host_scan: the instances of Proofs/C01_EqAuthModel.v for a special scheme *)
Lemma is_aes_stop c : is_aes c = is_ae c || (true && (c =? 92)).
Proof. reflexivity. Qed.

Theorem parse_userinfo_spec_s ser l : usv_list l ->
  match fst (after_at_s (ntnl l)) with
  | None => forall P : Prop, (U32_MAX_P < nlen ser -> P) -> oob P (parse_userinfo STSpecialNotFile ser l) (ser, nlen ser, l)
  | Some w =>
      if is_nil w && starts_aes (snd (after_at_s (ntnl l))) then parse_userinfo STSpecialNotFile ser l = PErr EmptyHost
      else exists rem, ntnl rem = snd (after_at_s (ntnl l)) /\ usv_list rem /\
           forall P : Prop,
           ((U32_MAX_P < nlen (ser ++ cred_text (encU (cr_user w)) (encU (cr_pass w))) -> P) ->
            oob P (parse_userinfo STSpecialNotFile ser l)
                (ser ++ cred_text (encU (cr_user w)) (encU (cr_pass w)), nlen ser + nlen (encU (cr_user w)), rem))
  end.
Proof. exact (parse_userinfo_cut true is_aes is_aes_stop STSpecialNotFile eq_refl ser l). Qed.

(* host *)
Lemma host_scan_spec_s l : forall br acc, usv_list l ->
  exists rem, host_scan true br acc l = (rev acc ++ hss_host br (ntnl l), rem)
              /\ ntnl rem = hss_rest br (ntnl l) /\ usv_list rem.
Proof. exact (host_scan_cut true is_aes is_aes_stop l). Qed.

(* the text the path start state sees, from the text HR after the credentials *)
Definition sp_path_text_of (HR : list N) : list N :=
  match port_split (hss_rest false HR) with
  | Some PR => after_digits PR
  | None => hss_rest false HR
  end.

Lemma path_end_aes c : is_path_end c = is_aes c.
Proof. unfold is_path_end, is_aes, is_ae. destruct (c =? 47), (c =? 92), (c =? 63), (c =? 35); reflexivity. Qed.

(* the host functions of the two sides on one string *)
(* the model's Host::parse + Display and the Standard's host parser (isOpaque = false) + serializer
   agree on the non-empty string s: both fail, or both succeed with the same non-empty text, which
   neither starts with ':' nor ends with '/', and the model's host is not the empty domain *)
Definition host_agree_sp (hp : list N -> result host) (hd : host -> list N)
           (shp : bool -> list N -> option spec_host) (shs : spec_host -> list N) (s : list N) : Prop :=
  match s with
  | [] => True
  | _ =>
      match hp s, host_parsing shp false s with
      | Ok h, Some sh => hd h = shs sh /\ starts_with_cp 58 (hd h) = false
                         /\ h <> HDomain [] /\ hd h <> [] /\ ends_with_byte 47 (hd h) = false
      | Err _, None => True
      | _, _ => False
      end
  end.

Lemma port_default_eq sch v : opt_eqb (Some v) (default_port sch) = port_is_default sch v.
Proof.
  unfold port_is_default. rewrite <- default_ports_are_the_standards.
  destruct (default_port sch) as [d|]; cbn [opt_eqb]; [apply N.eqb_sym | reflexivity].
Qed.

Lemma decimal_not_slash p X : ends_with_byte 47 (X ++ 58 :: decimal p) = false.
Proof. exact (decimal_last p X). Qed.

Section Stages.
Variable dbg : bool.
Variable hp hpo : list N -> result host.
Variable hd : host -> list N.
Variable ovr : option (list N -> list N).
Variable shp : bool -> list N -> option spec_host.
Variable shs : spec_host -> list N.

(* parse_host_and_port *)
Theorem hp_spec_s sch ser1 rem u : usv_list rem -> scheme_type_of sch = STSpecialNotFile ->
  (exists tl, ser1 = sch ++ tl) -> su_port u = None -> su_scheme u = sch ->
  host_agree_sp hp hd shp shs (hss_host false (ntnl rem)) ->
  match sauth_host_g shp u [] false (ntnl rem) with
  | None => mfail (parse_host_and_port hp hpo hd CUrlParser STSpecialNotFile (nlen sch) ser1 rem)
  | Some su =>
      exists host sh port rem',
        hp (hss_host false (ntnl rem)) = Ok host /\ host_parsing shp false (hss_host false (ntnl rem)) = Some sh
        /\ hss_host false (ntnl rem) <> []
        /\ (forall p, port = Some p -> p <= 65535)
        /\ ntnl rem' = sp_path_text_of (ntnl rem) /\ usv_list rem' /\ starts_aes (sp_path_text_of (ntnl rem)) = true
        /\ su = sauth_tail_s (set_port (set_host u (Some sh)) port) (sp_path_text_of (ntnl rem))
        /\ ends_with_byte 47 ((ser1 ++ hd host) ++ port_suffix port) = false
        /\ (forall P : Prop, (U32_MAX_P < nlen (ser1 ++ hd host) -> P) ->
            oob P (parse_host_and_port hp hpo hd CUrlParser STSpecialNotFile (nlen sch) ser1 rem)
                ((ser1 ++ hd host) ++ port_suffix port, nlen (ser1 ++ hd host), hi_of_host host, port, rem'))
  end.
Proof.
  intros Hu Hsp Hsch Hpo Hus HA.
  unfold parse_host_and_port, parse_host. cbn [st_is_file st_is_special scheme_type_eqb andb negb].
  destruct (host_scan_spec_s rem false [] Hu) as (rem2 & Escan & Hrem2 & Hu2). cbn [rev app] in Escan.
  rewrite Escan.
  unfold sauth_host_g, sp_path_text_of. cbv zeta. cbn [app].
  pose proof (hss_rest_head (ntnl rem) false) as Hhead.
  remember (ntnl rem) as HR eqn:EHR. remember (hss_host false HR) as Hh0 eqn:EHh.
  destruct Hh0 as [|h0 hr].
  { (* empty host: EmptyHost on the model side, failure in the host state *)
    cbn [is_nil pbind]. exists EmptyHost. reflexivity. }
  cbn [is_nil]. unfold host_agree_sp in HA. cbv beta iota in HA.
  change (match h0 :: hr with [] => true | _ :: _ => false end) with false. cbv beta iota.
  set (Hh := h0 :: hr) in *.
  destruct (hp Hh) as [host|e] eqn:Ehp; destruct (host_parsing shp false Hh) as [sh|] eqn:Eshp; try contradiction.
  2:{ cbn [of_result pbind]. exists e. reflexivity. }
  destruct HA as (Htxt & Hcol & Hne & Hne2 & Hsl).
  cbn [of_result pbind].
  assert (nfirstn (nlen sch) (ser1 ++ hd host) = sch) as Esch.
  { destruct Hsch as [tl ->]. rewrite <- app_assoc. apply nfirstn_app_len. }
  rewrite Esch.
  assert (forall rm, match host with
                     | HDomain [] => if inp_starts_with_char 58 rm then PErr EmptyHost
                                     else if true then PErr EmptyHost else POk tt
                     | _ => POk tt end = POk tt) as Echk.
  { intros rm. destruct host as [[|a b]| |]; try reflexivity. exfalso. apply Hne. reflexivity. }
  assert (Hh <> []) as HhNe by (unfold Hh; discriminate).
  destruct (port_split (hss_rest false HR)) as [PR|] eqn:Eps.
  - (* ':' ends the host *)
    destruct (hss_rest false HR) as [|c0 X0] eqn:EX0; [discriminate Eps|]. cbn [port_split] in Eps.
    destruct (c0 =? 58) eqn:E58; [|discriminate Eps]. inversion Eps; subst X0. apply N.eqb_eq in E58. subst c0.
    destruct (inp_next_some rem2 58 PR Hrem2) as (rem3 & En3 & Hrem3 & _).
    assert (usv_list rem3) as Hu3 by (exact (inp_next_usv rem2 58 rem3 Hu2 En3)).
    assert (inp_split_prefix_char 58 rem2 = Some rem3) as Esp by (unfold inp_split_prefix_char; rewrite En3; reflexivity).
    rewrite Esp.
    pose proof (port_loop_spec rem3 0 false Hu3 ltac:(lia)) as HPL. cbv zeta in HPL. rewrite Hrem3 in HPL.
    rewrite valfrom_decimal in HPL. cbn [orb] in HPL.
    unfold sauth_port_g. cbv zeta. cbn [app]. unfold parse_port.
    destruct (starts_aes (after_digits PR)) eqn:Esae; cbn [negb].
    + (* the port ends at the end of the authority *)
      destruct (65535 <? decimal_value (digits_of PR)) eqn:Eov.
      * (* beyond 65535 *)
        assert (is_nil (digits_of PR) = false) as End.
        { destruct (digits_of PR); [discriminate Eov | reflexivity]. }
        rewrite End.
        eapply mfail_bind2 with (P := True); [apply oob_u32; intros _; exact I|].
        rewrite Echk. cbn [pbind]. rewrite HPL. exists InvalidPort. reflexivity.
      * assert (exists rem4, parse_port_loop CUrlParser rem3 0 false
                     = POk (decimal_value (digits_of PR), negb (is_nil (digits_of PR)), rem4)
                     /\ ntnl rem4 = after_digits PR /\ usv_list rem4) as (rem4 & EPL & Hrem4 & Hu4).
        { destruct (after_digits PR) as [|c X1] eqn:EX.
          - exists []. split; [exact HPL | split; [reflexivity | constructor]].
          - cbn [starts_aes] in Esae. rewrite path_end_aes, Esae in HPL. exact HPL. }
        destruct (is_nil (digits_of PR)) eqn:End; try rewrite End in EPL; cbn [negb] in EPL.
        -- exists host, sh, None, rem4.
           split; [reflexivity|]. split; [reflexivity|]. split; [exact HhNe|].
           split; [intros p Hp; discriminate Hp|].
           split; [exact Hrem4|]. split; [exact Hu4|]. split; [first [exact Esae | reflexivity]|].
           split; [rewrite set_port_none; [reflexivity | exact Hpo]|].
           split; [cbn [port_suffix]; rewrite app_nil_r; unfold ends_with_byte in *; rewrite rev_app_distr;
                   destruct (rev (hd host)) as [|x y] eqn:Er; [exfalso; apply Hne2; rewrite <- (rev_involutive (hd host)), Er; reflexivity | exact Hsl]|].
           intros P HP. eapply oob_bind; [apply oob_u32; exact HP|]. rewrite Echk. cbn [pbind]. rewrite EPL. cbn [pbind].
           cbn [ctx_eqb andb negb orb pbind port_suffix]. rewrite app_nil_r. right. reflexivity.
        -- set (v := decimal_value (digits_of PR)) in *.
           exists host, sh, (if port_is_default sch v then None else Some v), rem4.
           split; [reflexivity|]. split; [reflexivity|]. split; [exact HhNe|].
           split; [intros p Hp; destruct (port_is_default sch v); [discriminate Hp | inversion Hp; subst; lia]|].
           split; [exact Hrem4|]. split; [exact Hu4|]. split; [first [exact Esae | reflexivity]|].
           split; [cbn [su_scheme set_host]; rewrite Hus; reflexivity|].
           split.
           { destruct (port_is_default sch v); cbn [port_suffix].
             - rewrite app_nil_r. unfold ends_with_byte in *. rewrite rev_app_distr.
               destruct (rev (hd host)) as [|x y] eqn:Er; [exfalso; apply Hne2; rewrite <- (rev_involutive (hd host)), Er; reflexivity | exact Hsl].
             - apply decimal_not_slash. }
           intros P HP. eapply oob_bind; [apply oob_u32; exact HP|]. rewrite Echk. cbn [pbind]. rewrite EPL. cbn [pbind].
           cbn [ctx_eqb andb negb orb]. rewrite port_default_eq.
           destruct (port_is_default sch v); cbn [pbind port_suffix]; [rewrite app_nil_r|]; right; reflexivity.
    + (* something else follows the digits: failure on both sides *)
      eapply mfail_bind2 with (P := True); [apply oob_u32; intros _; exact I|].
      rewrite Echk. cbn [pbind].
      destruct (65535 <? decimal_value (digits_of PR)) eqn:Eov; [rewrite HPL; exists InvalidPort; reflexivity|].
      destruct (after_digits PR) as [|c X1] eqn:EX; [discriminate Esae|]. cbn [starts_aes] in Esae.
      rewrite path_end_aes, Esae in HPL. rewrite HPL. exists InvalidPort. reflexivity.
  - (* the host ends at the end of the authority *)
    assert (starts_with_cp 58 (hss_rest false HR) = false) as E58.
    { destruct (hss_rest false HR) as [|c0 X0]; [reflexivity|]. cbn [port_split] in Eps. cbn [starts_with_cp].
      destruct (c0 =? 58); [discriminate Eps | reflexivity]. }
    assert (inp_split_prefix_char 58 rem2 = None) as Esp.
    { unfold inp_split_prefix_char. destruct (inp_next rem2) as [[d r]|] eqn:En; [|reflexivity].
      destruct (inp_next_ntnl rem2 d r En) as [E1 _]. rewrite Hrem2 in E1. rewrite E1 in E58. cbn [starts_with_cp] in E58.
      rewrite E58. reflexivity. }
    exists host, sh, None, rem2.
    split; [reflexivity|]. split; [reflexivity|]. split; [exact HhNe|]. split; [intros p Hp; discriminate Hp|].
    split; [exact Hrem2|]. split; [exact Hu2|].
    split.
    { destruct (hss_rest false HR) as [|c0 X0]; [reflexivity|]. cbn [port_split] in Eps. cbn [starts_aes].
      destruct (c0 =? 58) eqn:E58'; [discriminate Eps|]. destruct Hhead as [K|K]; [exact K | rewrite K in E58'; discriminate]. }
    split; [rewrite set_port_none; [reflexivity | exact Hpo]|].
    split; [cbn [port_suffix]; rewrite app_nil_r; unfold ends_with_byte in *; rewrite rev_app_distr;
            destruct (rev (hd host)) as [|x y] eqn:Er; [exfalso; apply Hne2; rewrite <- (rev_involutive (hd host)), Er; reflexivity | exact Hsl]|].
    intros P HP. eapply oob_bind; [apply oob_u32; exact HP|].
    rewrite Echk. cbn [pbind]. rewrite Esp.
    cbn [pbind port_suffix]. rewrite app_nil_r. right. reflexivity.
Qed.

End Stages.
