(* Proofs/C20_Join.v - Url::join of a file-name reference onto the record from_directory_path builds,
   through the URL parser model (Model/Parser.v), and to_file_path of the result: dir_join_generic. *)
From RU Require Import Base.Prelude Base.Utf8 Gen.Tables Model.PercentEncoding
  Model.HostT Model.UrlRecord Model.Parser Model.FilePath
  Proofs.ListN Proofs.C20_Path Proofs.C20_RT.

(* references the path state copies unchanged *)
Definition ref_char_ok (c : N) : bool :=
  negb (is_tnl c) && negb (is_c0_or_space c)
  && negb (c =? 47) && negb (c =? 92) && negb (c =? 63) && negb (c =? 35).

Record ref_ok (r : list N) : Prop := {
  ro_ne : r <> [];
  ro_chars : Forall (fun c => ref_char_ok c = true) r;
  ro_enc : pe_display T_PATH (utf8_encode r) = r;
  ro_scheme : parse_scheme CUrlParser r = None;
  ro_wdl_seg : starts_with_wdl_segment r = false;
  ro_dd : is_double_dot r = false;
  ro_sd : is_single_dot r = false;
  ro_wdl : is_wdl r = false
}.

Lemma ref_char_ok_inv c : ref_char_ok c = true ->
  is_tnl c = false /\ is_c0_or_space c = false /\ c <> 47 /\ c <> 92 /\ c <> 63 /\ c <> 35.
Proof. unfold ref_char_ok, is_tnl, is_c0_or_space. intros H. repeat split; lia. Qed.

Lemma ref_no_slash r : Forall (fun c => ref_char_ok c = true) r -> ~ In 47 r.
Proof.
  intros H Hi. rewrite Forall_forall in H. specialize (H 47 Hi). discriminate H.
Qed.

Lemma drop_while_stop f l : match l with [] => True | c :: _ => f c = false end -> drop_while f l = l.
Proof. destruct l as [|c l]; [reflexivity|]. intros H. cbn [drop_while]. rewrite H. reflexivity. Qed.

Lemma trim_id r : Forall (fun c => ref_char_ok c = true) r -> input_new_trim_c0 r = r.
Proof.
  intros H. unfold input_new_trim_c0, trim_matches.
  assert (Hd : forall l, Forall (fun c => ref_char_ok c = true) l -> drop_while is_c0_or_space l = l).
  { intros l Hl. apply drop_while_stop. destruct l as [|c l]; [exact I|].
    inversion Hl as [|? ? Hc ?]; subst. apply ref_char_ok_inv in Hc. tauto. }
  rewrite (Hd r H). rewrite (Hd (rev r)) by (apply Forall_rev; exact H). apply rev_involutive.
Qed.

Lemma inp_next_ok c r : is_tnl c = false -> inp_next (c :: r) = Some (c, r).
Proof. intros H. unfold inp_next. cbn [drop_while]. rewrite H. reflexivity. Qed.

Section Join.
Variable dbg : bool.
Variable host_parse : list N -> result host.
Variable host_parse_opaque : list N -> result host.
Variable host_display : host -> list N.

Notation ppl := (parse_path_loop dbg).

Lemma ppl_nil ctx st ps ser seg pend hh :
  ppl ctx st ps [] ser seg pend hh =
  (let s1 := push_pending ctx st ser pend in
   ' (s2, hh2) <~ finish_segment dbg st ps s1 seg false hh ;;
   POk (file_path_fixup st ps s2, hh2, [])).
Proof. reflexivity. Qed.

Lemma ppl_plain c r ser seg pend :
  ref_char_ok c = true ->
  ((7 <? nlen ser) && is_normalized_wdl (nskipn (7 + 1) ser)) = false ->
  ppl CUrlParser STFile 7 (c :: r) ser seg pend true = ppl CUrlParser STFile 7 r ser seg (c :: pend) true.
Proof.
  intros Hc Hw. apply ref_char_ok_inv in Hc. destruct Hc as [H1 [_ [H47 [H92 [H63 H35]]]]].
  cbn [parse_path_loop]. rewrite H1.
  replace (c =? 47) with false by lia. replace (c =? 92) with false by lia.
  replace (c =? 63) with false by lia. replace (c =? 35) with false by lia.
  cbn [ctx_eqb negb andb orb st_is_file]. rewrite Hw. reflexivity.
Qed.

Lemma ppl_plain_all r : forall ser seg pend,
  Forall (fun c => ref_char_ok c = true) r ->
  ((7 <? nlen ser) && is_normalized_wdl (nskipn (7 + 1) ser)) = false ->
  ppl CUrlParser STFile 7 r ser seg pend true = ppl CUrlParser STFile 7 [] ser seg (rev r ++ pend) true.
Proof.
  induction r as [|c r IH]; intros ser seg pend Hr Hw; [reflexivity|].
  inversion Hr as [|? ? Hc Hr']; subst.
  rewrite ppl_plain by assumption. rewrite IH by assumption.
  cbn [rev]. rewrite <- app_assoc. reflexivity.
Qed.

(* what is needed of the base path P (= dir_path_of ks): "/" T, X "/" *)
Record dir_path_ok (P X T : list N) : Prop := {
  dp_front : P = 47 :: T;
  dp_back : P = X ++ [47];
  dp_not_wdl : is_normalized_wdl T = false;
  dp_no_lead : match T with [] => True | c :: _ => c <> 47 end
}.

Lemma rfind_aux_snoc b X : forall i last, rfind_aux b (X ++ [b]) i last = Some (i + nlen X).
Proof.
  induction X as [|x X IH]; intros i last.
  - cbn [app rfind_aux]. rewrite N.eqb_refl. f_equal. rewrite nlen_nil. lia.
  - cbn [app rfind_aux]. rewrite IH. f_equal. rewrite nlen_cons. lia.
Qed.

Lemma starts_with_wdl_slash T : starts_with_wdl (47 :: T) = false.
Proof. destruct T as [|b rest]; reflexivity. Qed.

Lemma is_normalized_wdl_slash T : is_normalized_wdl (47 :: T) = false.
Proof. unfold is_normalized_wdl, is_wdl. rewrite starts_with_wdl_slash. rewrite andb_false_r. reflexivity. Qed.

Lemma nfirstn_len a : nfirstn (nlen a) a = a.
Proof. apply nfirstn_all. lia. Qed.

Lemma shorten_base P X T : dir_path_ok P X T ->
  shorten_path STFile 7 (s_file_css ++ P) = POk (s_file_css ++ P).
Proof.
  intros [Hf Hb _ _]. unfold shorten_path.
  assert (Hl : nlen (s_file_css ++ P) = 7 + nlen X + 1).
  { rewrite nlen_app, nlen_file_css, Hb, nlen_app. change (nlen [47]) with 1. lia. }
  rewrite Hl. replace (7 + nlen X + 1 =? 7) with false by lia.
  change (nskipn 7 (s_file_css ++ P)) with P. rewrite Hf at 1. rewrite is_normalized_wdl_slash.
  cbn [st_is_file andb]. unfold pop_path. rewrite Hl.
  replace (7 <? 7 + nlen X + 1) with true by lia.
  change (nskipn 7 (s_file_css ++ P)) with P. rewrite Hb at 1. unfold rfind. rewrite rfind_aux_snoc.
  replace (7 + (0 + nlen X) + 1) with (nlen (s_file_css ++ P)) by lia.
  replace (nskipn (nlen (s_file_css ++ P)) (s_file_css ++ P)) with (@nil N)
    by (symmetry; apply nskipn_all; lia).
  cbn [st_is_file andb]. change (is_normalized_wdl []) with false. cbn iota.
  unfold truncate. rewrite nfirstn_len. reflexivity.
Qed.

Lemma base_not_wdl P X T : dir_path_ok P X T ->
  ((7 <? nlen (s_file_css ++ P)) && is_normalized_wdl (nskipn (7 + 1) (s_file_css ++ P))) = false.
Proof.
  intros [Hf _ Hw _]. subst P. change (nskipn (7 + 1) (s_file_css ++ 47 :: T)) with T.
  rewrite Hw. apply andb_false_r.
Qed.

Lemma push_pending_ref r S : ref_ok r ->
  push_pending CUrlParser STFile S (rev r ++ []) = S ++ r.
Proof.
  intros Hr. rewrite app_nil_r. unfold push_pending.
  destruct (rev r) as [|y t] eqn:E.
  - exfalso. apply (ro_ne r Hr). rewrite <- (rev_involutive r), E. reflexivity.
  - rewrite <- E. rewrite rev_involutive. unfold push_encoded.
    change (path_set CUrlParser STFile) with T_PATH. rewrite (ro_enc r Hr). reflexivity.
Qed.

Lemma finish_segment_ref r S : ref_ok r ->
  finish_segment dbg STFile 7 (S ++ r) (nlen S) false true = POk (S ++ r, true).
Proof.
  intros Hr. unfold finish_segment.
  assert (Hs : slice_o (S ++ r) (nlen S) (nlen (S ++ r)) = Some r).
  { unfold slice_o. rewrite nlen_app.
    replace ((nlen S <=? nlen S + nlen r) && (nlen S + nlen r <=? nlen S + nlen r)) with true by lia.
    rewrite nskipn_app_len. replace (nlen S + nlen r - nlen S) with (nlen r) by lia.
    rewrite nfirstn_len. reflexivity. }
  rewrite Hs. cbn [of_option pbind].
  rewrite (ro_dd r Hr), (ro_sd r Hr), (ro_wdl r Hr). rewrite andb_false_r. reflexivity.
Qed.

Lemma file_path_fixup_ref r P X T : dir_path_ok P X T -> Forall (fun c => ref_char_ok c = true) r -> r <> [] ->
  file_path_fixup STFile 7 ((s_file_css ++ P) ++ r) = (s_file_css ++ P) ++ r.
Proof.
  intros [Hf _ _ Hl] Hr Hne. unfold file_path_fixup. cbn [st_is_file].
  rewrite <- app_assoc.
  change (nskipn 7 (s_file_css ++ P ++ r)) with (P ++ r).
  change (nfirstn 7 (s_file_css ++ P ++ r)) with s_file_css.
  subst P. cbn [app drop_while]. change (is_slash 47) with true. cbn iota.
  rewrite drop_while_stop; [reflexivity|].
  destruct T as [|c T'].
  - destruct r as [|c r']; [congruence|]. cbn [app]. inversion Hr as [|? ? Hc ?]; subst.
    apply ref_char_ok_inv in Hc. unfold is_slash. lia.
  - cbn [app]. unfold is_slash. lia.
Qed.

Lemma with_qf_file Q :
  with_query_and_fragment None CUrlParser STFile 4 7 7 7 HI_None None 7 (s_file_css ++ Q) [] = POk (file_rec Q).
Proof. reflexivity. Qed.

Theorem url_join_plain P X T r : dir_path_ok P X T -> ref_ok r ->
  url_join dbg host_parse host_parse_opaque host_display (file_rec P) r = POk (file_rec (P ++ r)).
Proof.
  intros HP Hr. pose proof (ro_chars r Hr) as Hch. pose proof (ro_ne r Hr) as Hne.
  destruct r as [|c rest] eqn:Er; [congruence|]. rewrite <- Er in *.
  assert (Hc : ref_char_ok c = true) by (rewrite Er in Hch; inversion Hch; assumption).
  pose proof (ref_char_ok_inv c Hc) as [Htnl [_ [H47 [H92 [H63 H35]]]]].
  assert (Hnext : inp_next r = Some (c, rest)) by (rewrite Er; apply inp_next_ok; exact Htnl).
  unfold url_join, parse_url. rewrite trim_id by exact Hch. rewrite (ro_scheme r Hr).
  unfold inp_starts_with_char. rewrite Hnext. replace (c =? 35) with false by lia.
  assert (Hcb : cannot_be_a_base (file_rec P) = Some false).
  { destruct HP as [Hf _ _ _]. subst P. unfold cannot_be_a_base, u_slice_from, slice_from_o.
    cbn [file_rec ser scheme_end]. rewrite nlen_app, nlen_file_css.
    replace (4 + 1 <=? 7 + nlen (47 :: T)) with true by lia. reflexivity. }
  rewrite Hcb.
  change (b_scheme (file_rec P)) with s_file. change (scheme_type_of s_file) with STFile.
  cbn [st_is_file].
  (* parse_file, relative branch with a file base *)
  unfold parse_file. unfold inp_split_first at 1. rewrite Hnext.
  unfold is_slash_or_bslash at 1. replace (c =? 47) with false by lia. replace (c =? 92) with false by lia.
  cbn [orb]. cbv iota beta.
  replace (c =? 63) with false by lia. replace (c =? 35) with false by lia.
  rewrite (ro_wdl_seg r Hr). cbn [negb].
  change (path_start (file_rec P)) with 7.
  change (b_before_query (file_rec P)) with (s_file_css ++ P).
  rewrite (shorten_base P X T HP). cbn [pbind].
  unfold parse_path.
  rewrite ppl_plain_all; [| exact Hch | exact (base_not_wdl P X T HP)].
  rewrite ppl_nil. cbv zeta.
  rewrite push_pending_ref by exact Hr.
  rewrite finish_segment_ref by exact Hr. cbn [pbind].
  rewrite (file_path_fixup_ref r P X T HP Hch Hne).
  change (scheme_end (file_rec P)) with 4. change (username_end (file_rec P)) with 7.
  change (host_start (file_rec P)) with 7. change (host_end (file_rec P)) with 7.
  change (hosti (file_rec P)) with HI_None. change (port (file_rec P)) with (@None N).
  rewrite <- app_assoc. apply with_qf_file.
Qed.

(* the directory path satisfies what the join needs (dir_path_ok) *)
Lemma join_slash_then_slash l : exists Y, join_slash l ++ [47] = 47 :: Y.
Proof. destruct l as [|k l]; [exists []; reflexivity | eexists; rewrite join_slash_cons; reflexivity]. Qed.

Lemma not_wdl_piece_slash e Y : e <> [] -> is_normalized_wdl (e ++ 47 :: Y) = false.
Proof.
  intros He. destruct e as [|a [|b e]]; [congruence| |].
  - cbn [app]. unfold is_normalized_wdl. change (47 =? 58) with false. apply andb_false_r.
  - unfold is_normalized_wdl, is_wdl. cbn [app length]. rewrite app_length. cbn [length].
    rewrite Nat.add_succ_r. reflexivity.
Qed.

Lemma dir_path_of_ok ks : Forall bytes ks -> Forall (fun k => keep_piece k = true) ks ->
  exists X T, dir_path_ok (dir_path_of ks) X T.
Proof.
  intros Hb Hk. unfold dir_path_of. destruct ks as [|k ks].
  - exists [], []. constructor; try reflexivity; exact I.
  - inversion Hb as [|? ? Hbk Hbks]; subst. inversion Hk as [|? ? Hkk Hkks]; subst.
    destruct (join_slash_then_slash (map enc ks)) as [Y HY].
    exists (join_slash (map enc (k :: ks))), (enc k ++ 47 :: Y).
    pose proof (enc_nonempty k (keep_piece_nonempty k Hkk)) as Hne.
    constructor.
    + cbn [map]. rewrite join_slash_cons. cbn [app]. rewrite <- app_assoc, HY. reflexivity.
    + reflexivity.
    + apply not_wdl_piece_slash. exact Hne.
    + destruct (enc k) as [|a e] eqn:E; [congruence|]. cbn [app].
      intros ->. apply (enc_no_slash k Hbk). rewrite E. left. reflexivity.
Qed.

(* joining a reference r that decodes to the name f, and converting back *)
Theorem dir_join_generic p r f :
  bytes p -> path_is_absolute p = true -> ref_ok r -> decode r = f ->
  keep_piece f = true -> ~ In 47 f -> piece_is_dotdot f = false ->
  exists d u q,
    from_directory_path p = FOk d
    /\ url_join dbg host_parse host_parse_opaque host_display d r = POk u
    /\ u = file_rec (dir_path_of (kept p) ++ r)
    /\ path_segments u = Some (Some (map enc (kept p) ++ [r]))
    /\ to_file_path dbg u = FOk q
    /\ path_components q = path_components p ++ [CNormal f].
Proof.
  intros Hb Ha Hr Hdec Hkf Hnf Hddf.
  pose proof (kept_bytes p Hb) as Hkb. pose proof (kept_nosep p) as Hkn. pose proof (kept_keep p) as Hkk.
  destruct (dir_path_of_ok (kept p) Hkb Hkk) as [X [T HP]].
  set (segs := map enc (kept p) ++ [r]).
  assert (Hpath : dir_path_of (kept p) ++ r = join_slash segs).
  { unfold dir_path_of, segs. rewrite join_slash_snoc. rewrite <- app_assoc. reflexivity. }
  assert (Hsne : segs <> []) by (unfold segs; intros E; apply app_eq_nil in E; destruct E; discriminate).
  assert (Hsns : Forall (fun k => ~ In 47 k) segs).
  { unfold segs. apply Forall_app. split; [apply Forall_enc_no_slash; exact Hkb|].
    constructor; [|constructor]. apply ref_no_slash. exact (ro_chars r Hr). }
  exists (file_rec (dir_path_of (kept p))), (file_rec (dir_path_of (kept p) ++ r)),
         (drive_letter_hack (join_slash (map decode segs))).
  split; [apply from_directory_path_spec; assumption|].
  split; [apply (url_join_plain _ X T); assumption|].
  split; [reflexivity|].
  rewrite Hpath.
  split; [apply path_segments_file_rec; assumption|].
  split; [apply to_file_path_file_rec; assumption|].
  destruct (hack_cases (join_slash (map decode segs))) as [t [Ht Hh]]. rewrite Hh.
  unfold segs. rewrite map_app. cbn [map]. rewrite map_decode_enc by exact Hkb. rewrite Hdec.
  rewrite components_join_slash.
  - rewrite (components_abs p Ha). rewrite map_app. cbn [map app].
    unfold component_of_piece at 2. rewrite Hddf. reflexivity.
  - exact Ht.
  - intros E. apply app_eq_nil in E. destruct E; discriminate.
  - apply Forall_app. split; [exact Hkn | constructor; [exact Hnf | constructor]].
  - apply Forall_app. split; [exact Hkk | constructor; [exact Hkf | constructor]].
Qed.

End Join.
