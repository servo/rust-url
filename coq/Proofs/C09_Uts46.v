(* Proofs/C09_Uts46.v - the premise IdnaOK2 of the C09_display_rt2 / C09_inst2_* theorems DISCHARGED for the IDNA model
   (Model/Uts46.v called as host.rs calls it: idna_of A cfg = domain_to_ascii_cow(bytes, AsciiDenyList::URL)) from the
   proved theorems of C10:
     clause 1 (outputs are lower-case ASCII outside the deny list)      <- C10_ascii   (premise NvNoTrunc)
     clause 2 (outputs outside Known_C10_long are fixed points)         <- C10_idem3   (the six sampled adapter facts)
     clause 3 (dotted-decimal text is mapped to itself)                 <- C10_an      (no premise: the text of an
                                                                            Ipv4Addr is in the adapter-free class AN)
   What is left as a premise are facts about the ADAPTER (idna_adapter: normalizer, joining / bidi tables) only, each
   sampled on the real crate by the `adapter` stream of the harness. *)
From RU Require Import Base.Prelude Base.Utf8 Base.U32_c13 Gen.Tables Model.Punycode Model.Uts46
  Proofs.Idna_Sim Proofs.Idna_Api Proofs.Idna_Known Proofs.Idna_Hyp
  Proofs.Idna_C10_Deny Proofs.Idna_C10_Prefix Proofs.Idna_C10_Walk
  Proofs.Idna_C10b_Long Proofs.Idna_C10b_AsciiInner Proofs.Idna_C10b_AsciiWalk Proofs.Idna_C10b_Stmt
  Proofs.Idna_WalkEnc Proofs.Idna_C10_Inner Proofs.Idna_C10c_Drun Proofs.Idna_C10c_Idem Proofs.Idna_C10c_Example.
From RU Require Import Model.HostT Model.Host Proofs.C09_Host Proofs.C09_InstIdna Proofs.C09_Long Proofs.C09_LongWit.

(* ---------------------------------------------------------------- the class "digits and dots" *)
Definition dd (c : N) : Prop := is_digit c = true \/ c = 46.

Lemma dd_lt c : dd c -> c < 128.
Proof. intros [H| ->]; [unfold is_digit in H|]; lia. Qed.

(* a character of the class is its own lower-case form and is not touched by the URL deny list *)
Lemma dd_sweep :
  all_below 128 (fun c => negb (is_digit c || (c =? 46))
                          || ((to_lower c =? c) && negb (is_fffd (apply_upper DENY_URL c)))) = true.
Proof. vm_compute. reflexivity. Qed.

Lemma dd_fixed c : dd c -> to_lower c = c /\ is_fffd (apply_upper DENY_URL c) = false.
Proof.
  intros H. pose proof (all_below_spec 128 _ dd_sweep c (dd_lt c H)) as E. cbv beta in E.
  replace (is_digit c || (c =? 46)) with true in E by (destruct H as [-> | ->]; reflexivity).
  cbn [negb orb] in E. apply andb_true_iff in E. destruct E as [E1 E2].
  split; [apply N.eqb_eq, E1 | apply negb_true_iff, E2].
Qed.

Lemma dd_map_lower l : Forall dd l -> map to_lower l = l.
Proof. induction 1 as [|c r Hc _ IH]; [reflexivity|]. cbn [map]. rewrite (proj1 (dd_fixed c Hc)), IH. reflexivity. Qed.

Lemma dd_lab_acc l : Forall dd l -> lab_acc DENY_URL HAllow l = true.
Proof.
  intros H. unfold lab_acc. cbn [hy_is_allow orb]. rewrite andb_true_r. apply negb_true_iff. unfold cmap.
  induction H as [|c r Hc _ IH]; [reflexivity|]. cbn [map existsb]. rewrite (proj2 (dd_fixed c Hc)), IH. reflexivity.
Qed.

Lemma dd_an_label l : Forall dd l -> an_label l.
Proof.
  intros H. assert (Forall (fun b => b < 128) l) as Ha by (eapply Forall_impl; [|exact H]; intros c Hc; exact (dd_lt c Hc)).
  split; [exact Ha|]. destruct (has_punycode_prefix l) eqn:E; [|reflexivity]. exfalso.
  destruct (xn_prefix_spec l Ha E) as (a & b & r & -> & [->| ->] & _);
    inversion H as [|? ? Hc _]; subst; destruct Hc as [Hc|Hc]; try discriminate Hc; vm_compute in Hc; discriminate Hc.
Qed.

Lemma dd_AN d : Forall dd d -> AN d.
Proof.
  intros H. unfold AN. pose proof (split_on_Forall dd DOT d H) as S.
  eapply Forall_impl; [|exact S]. intros l Hl. exact (dd_an_label l Hl).
Qed.

(* ToASCII at the options of host.rs maps a text of digits and dots to itself - EVERY adapter *)
Theorem to_ascii_dd A cfg d : Forall dd d ->
  exists b, to_ascii A cfg d DENY_URL HAllow DIgnore = U32_c13.Ok (b, d).
Proof.
  intros H. destruct (c10_an A cfg d DENY_URL HAllow DIgnore (dd_AN d H) valid_deny_url) as [b E]. exists b.
  rewrite E. cbn [dns_is_ignore orb]. rewrite andb_true_r.
  assert (forallb (lab_acc DENY_URL HAllow) (split_on DOT d) = true) as ->.
  { apply forallb_forall. intros l Hl. apply dd_lab_acc.
    pose proof (split_on_Forall dd DOT d H) as S. rewrite Forall_forall in S. exact (S l Hl). }
  rewrite (dd_map_lower d H). reflexivity.
Qed.

(* clause 3: the text of an Ipv4Addr *)
Theorem v4_fixed_all A cfg : v4_fixed A cfg.
Proof. intros a Ha. destruct (ipv4_display_digits a Ha) as (Hd & _). exact (to_ascii_dd A cfg _ Hd). Qed.

(* clause 2 *)
Theorem idem_url2_of_idem3 A cfg : AdapterOK A -> AdapterUSV A -> NvNoTrunc A -> NvIdem A -> AsciiNoMark A -> MapPrefix A ->
  idem_url2 A cfg.
Proof.
  intros H1 H2 H3 H4 H5 H6 d b r Hb E K. exists true.
  exact (c10_idem3 A cfg H1 H2 H3 H4 H5 H6 d DENY_URL HAllow DIgnore b r Hb valid_deny_url E K).
Qed.

(* ---------------------------------------------------------------- IdnaOK2 for the IDNA model *)
Theorem IdnaOK2_uts46 A cfg : AdapterOK A -> AdapterUSV A -> NvNoTrunc A -> NvIdem A -> AsciiNoMark A -> MapPrefix A ->
  IdnaOK2 (idna_of A cfg).
Proof.
  intros H1 H2 H3 H4 H5 H6. apply IdnaOK2_of_model.
  - exact (c10_ascii_under_notrunc A cfg H3).
  - exact (idem_url2_of_idem3 A cfg H1 H2 H3 H4 H5 H6).
  - exact (v4_fixed_all A cfg).
Qed.

(* clause 1 and clause 3 alone need NvNoTrunc only: the C05 alphabet theorems (C09_inst2_C05) use clause 1 only *)
Theorem idna_out_uts46 A cfg : NvNoTrunc A -> forall bs d, idna_of A cfg bs = Some d -> Forall dom_char_ok d.
Proof. intros H3. exact (idna_of_out A cfg (c10_ascii_under_notrunc A cfg H3)). Qed.

(* the premises are satisfiable: the adapter lowsan of Proofs/Idna_C10c_Example.v (ASCII lower-casing; non-scalar values
   become U+FFFD) meets all six, so IdnaOK2 holds of the IDNA model run with it; and the host model linked with it reads
   "A.B<u-umlaut>cher" as the domain a.xn--bcher-kva, whose Display text it reads back as the same host *)
Example IdnaOK2_uts46_lowsan : IdnaOK2 (idna_of lowsan true).
Proof. destruct lowsan_premises as (H1 & H2 & H3 & H4 & H5 & H6). exact (IdnaOK2_uts46 lowsan true H1 H2 H3 H4 H5 H6). Qed.
