(* Proofs/C07_SpecHost.v - the specification side of the C07 equivalence for the hostname and host setters: the scan
   of the host state of Spec/Whatwg.v (buffer, insideBrackets) and what the state leaves when it is run WITH the state
   override "hostname state" on a URL whose scheme is not "file".  The run itself: Proofs/C07_SpecHostPort.v. *)
From RU Require Import Base.Prelude Base.Utf8 Spec.Whatwg Spec.WhatwgFuel Proofs.C01_EqRun Proofs.C01_EqAuthSpec
  Proofs.C07_SpecRun Proofs.C07_SpecProto.

(* end of the host: '/', '?', '#', and '\' for a special URL *)
Definition h_end (sp : bool) (c : N) : bool := (c =? 47) || (c =? 63) || (c =? 35) || (sp && (c =? 92)).

(* the scan of the host state: (buffer when it stops, stopped at a ':' outside brackets) *)
Fixpoint hscan (sp br : bool) (buf t : list N) : list N * bool :=
  match t with
  | [] => (buf, false)
  | c :: r => if (c =? 58) && negb br then (buf, true)
              else if h_end sp c then (buf, false)
              else hscan sp (br_next br c) (buf ++ [c]) r
  end.

Section HostnameOutcome.
Variable hp : bool -> list N -> option spec_host.

(* what the hostname state leaves, from the result of the scan *)
Definition hostname_decide (u : spec_url) (r : list N * bool) : spec_url :=
  let sp := is_special u in
  match r with
  | (_, true) => u
  | (buf, false) =>
      if sp && is_nil buf then u
      else if is_nil buf && (includes_credentials u || opt_is_some (su_port u)) then u
      else match host_parsing hp (negb sp) buf with
           | None => u
           | Some h => set_host u (Some h)
           end
  end.

Lemma list_eqb_nil_is_nil (b : list N) : list_eqb b [] = is_nil b.
Proof. destruct b; reflexivity. Qed.

End HostnameOutcome.

(* a host parser that gives the empty host only for the empty string *)
Definition empty_only (shp : bool -> list N -> option spec_host) : Prop :=
  forall o s, host_parsing shp o s = Some SEmpty -> s = [].
