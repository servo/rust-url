(* Proofs/C16_RTU.v - the parser half of the origin round trip: Url::parse on the byte string
   scheme "://" UTF-8(host text) [":" port], i.e. on the code points  scheme "://" host text [":" port]  when the host
   text consists of scalar values, ASCII or not (the Unicode serialization of an origin whose domain has a non-ASCII
   ToUnicode form).  The symbolic execution of parse_url is done once, for any host text on which the host scan is known
   to stop exactly at its end (scannable_u); texts of kept code points (freec) are one instance, the plain and the
   bracketed ASCII texts of Proofs/C16_RT6.v two more. *)
From RU Require Import Base.Prelude Base.Utf8 Base.Utf8Facts Model.HostT Model.UrlRecord
  Model.Parser Model.Origin Proofs.C16_Origin Proofs.ListN Proofs.C16_RT.
From RU Require Import Proofs.Decimal.

(* a code point that the host state keeps: above the space, none of : / \ ? # @ [ ]  - no upper bound *)
Definition freec (c : N) : bool := (32 <? c) && negb (memb c [58; 47; 92; 63; 35; 64; 91; 93]).

Lemma freec_facts c : freec c = true ->
  is_tnl c = false /\ 32 < c /\ c <> 58 /\ c <> 47 /\ c <> 92 /\ c <> 63 /\ c <> 35 /\ c <> 64 /\ c <> 91 /\ c <> 93.
Proof. unfold freec, is_tnl. cbn [memb]. intros H. lia. Qed.

Lemma plainc_freec c : plainc c = true -> freec c = true.
Proof. unfold plainc, freec. cbn [memb]. lia. Qed.

Lemma host_scan_free t : forall acc sfx,
  forallb freec t = true -> (sfx = [] \/ exists r, sfx = 58 :: r) ->
  host_scan true false acc (t ++ sfx) = (rev acc ++ t, sfx).
Proof.
  intros acc sfx Ht. apply host_scan_through. apply Forall_forall. intros c Hc.
  rewrite forallb_forall in Ht. apply Ht, freec_facts in Hc. tauto.
Qed.

Definition scannable_u (T : list N) : Prop :=
  Forall (fun x => 32 < x /\ x <> 64) T
  /\ (forall sfx, (sfx = [] \/ exists r, sfx = 58 :: r) -> host_scan true false [] (T ++ sfx) = (T, sfx)).

Lemma scannable_u_free T : forallb freec T = true -> scannable_u T.
Proof.
  intros H. split.
  - apply Forall_forall. intros x Hx. rewrite forallb_forall in H. apply H in Hx. apply freec_facts in Hx. lia.
  - intros sfx Hs. exact (host_scan_free T [] sfx H Hs).
Qed.

Lemma utf8_encode_asc l : Forall (fun c => c < 128) l -> utf8_encode l = l.
Proof.
  induction 1 as [|b r Hb Hr IH]; [reflexivity|].
  unfold utf8_encode in *. cbn [flat_map]. rewrite IH. unfold utf8_encode1.
  replace (b <? 128) with true by lia. reflexivity.
Qed.
Lemma asc_usv l : Forall (fun c => c < 128) l -> usv_list l.
Proof. intros H. unfold usv_list. eapply Forall_impl; [|exact H]. intros c Hc. unfold is_usv. cbv beta in Hc. lia. Qed.

Section RTU.
Variable dbg : bool.
Variable hp ho : list N -> result host.
Variable hd : host -> list N.

(* parse_url on the code points  s "://" (c :: t) [":" p]: the result has scheme s, host h, effective port p.
   Two premises speak of the text tout of h: hd h = tout is what the host state appends to the serialization
   (Display for Host); host_fmt hd h = tout is what host_of reads back from the record - for a domain d the slice of
   the serialization must be d itself, and an arbitrary hd need not write d as d. *)
Lemma parse_tuple_text_u s c t tout h p :
  In s five_schemes -> scannable_u (c :: t) -> c <> 47 -> c <> 92 ->
  hp (c :: t) = Ok h -> hd h = tout -> host_fmt hd h = tout -> tout <> [] -> ends_with_byte 47 tout = false ->
  p <= 65535 ->
  nlen s + 3 + nlen tout + nlen (port_suffix s p) + 1 <= U32_MAX_P ->
  exists w,
    parse_url dbg hp ho hd None None (s ++ 58 :: 47 :: 47 :: (c :: t) ++ port_suffix s p) = POk w
    /\ scheme w = Some s /\ host_of w = Some (Some h) /\ port_or_known_default w = Some (Some p).
Proof.
  intros H5 [Hchars Hscan] Hc47 Hc92 Hhp Hhd Hfmt Hone Hlast Hp HB.
  pose proof (five_chars s H5) as Hs.
  assert (Hsfx : port_suffix s p = [] \/ port_suffix s p = 58 :: decimal p)
    by (unfold port_suffix; destruct (opt_eqb _ _); auto).
  destruct (port_rt p Hp) as [Hport Hdig].
  assert (Hdigf : Forall (fun x => is_digit x = true) (decimal p)) by (apply Forall_forall; apply forallb_forall; exact Hdig).
  assert (Hall : Forall (fun x => 32 < x /\ x <> 64) (s ++ 58 :: 47 :: 47 :: (c :: t) ++ port_suffix s p)).
  { apply Forall_app. split; [eapply Forall_impl; [|exact Hs]; cbv beta; intros; lia|]. repeat (constructor; [lia|]).
    apply Forall_app. split; [exact Hchars|].
    destruct Hsfx as [->| ->]; [constructor|]. constructor; [lia|].
    eapply Forall_impl; [|exact Hdigf]. intros x Hx. unfold is_digit in Hx. lia. }
  (* trimming: nothing to trim *)
  unfold parse_url, input_new_trim_c0. cbv zeta.
  rewrite trim_id by (eapply Forall_impl; [|exact Hall]; intros x Hx; cbv beta in *; unfold is_c0_or_space; lia).
  (* scheme state: s is read up to the ':' and is special, not file *)
  rewrite (parse_scheme_five s _ H5).
  unfold parse_with_scheme. rewrite to_u32_ok by lia. cbn [pbind]. cbv zeta. rewrite (five_special s H5).
  (* the two slashes are skipped *)
  assert (Hc : 32 < c) by (inversion Hchars as [|? ? Hx _]; lia).
  destruct (inp_count_matching is_slash_or_bslash (47 :: 47 :: (c :: t) ++ port_suffix s p)) as [sl rem] eqn:Ecm.
  pose proof (count_matching_ss c (t ++ port_suffix s p) ltac:(unfold is_tnl; lia) ltac:(unfold is_slash_or_bslash; lia)) as Hrem.
  cbn [app] in Ecm. rewrite Ecm in Hrem. cbn [snd] in Hrem. subst rem.
  set (sfx := port_suffix s p) in *.
  unfold after_double_slash. cbv zeta.
  (* userinfo: no '@' in the rest, so none *)
  unfold parse_userinfo.
  rewrite scan_last_at_none.
  2:{ change (c :: t ++ sfx) with ((c :: t) ++ sfx).
      apply Forall_app in Hall. destruct Hall as [_ Hall]. inversion Hall as [|x1 l1 _ Hall1]; subst.
      inversion Hall1 as [|x2 l2 _ Hall2]; subst. inversion Hall2 as [|x3 l3 _ Hall3]; subst.
      eapply Forall_impl; [|exact Hall3]. cbv beta. intros; lia. }
  rewrite !nlen_app in *. change (nlen [58]) with 1 in *. change (nlen [47; 47]) with 2 in *.
  rewrite !to_u32_ok by lia. cbn [pbind].
  set (ser0 := (s ++ [58]) ++ [47; 47]) in *.
  assert (Hser0 : nlen ser0 = nlen s + 3)
    by (unfold ser0; rewrite !nlen_app; change (nlen [58]) with 1; change (nlen [47; 47]) with 2; lia).
  rewrite Hser0. rewrite to_u32_ok by lia. cbn [pbind].
  replace (nlen s + 1 + 2 =? nlen s + 3) with true by (symmetry; apply N.eqb_eq; lia). cbn [negb].
  (* host: the scan stops at the end of c :: t (Hscan), Host::parse gives h, hd h = tout is appended *)
  unfold parse_host_and_port, parse_host. cbn [st_is_file st_is_special scheme_type_eqb negb andb].
  change (c :: t ++ sfx) with ((c :: t) ++ sfx).
  rewrite (Hscan sfx) by (destruct Hsfx as [->| ->]; eauto).
  cbn [app].
  rewrite Hhp. cbn [of_result pbind]. rewrite Hhd.
  assert (Hne : h <> HDomain []) by (intros ->; cbn [host_fmt] in Hfmt; congruence).
  assert (Hlt1 : 1 <= nlen tout) by (destruct tout; [congruence|rewrite nlen_cons; lia]).
  assert (Hser1 : nlen (ser0 ++ tout) = nlen s + 3 + nlen tout) by (rewrite nlen_app; lia).
  rewrite Hser1. rewrite to_u32_ok by lia. cbn [pbind].
  rewrite (empty_host_check h _ _ Hne). cbn [pbind].
  replace (nfirstn (nlen s) (ser0 ++ tout)) with s
    by (unfold ser0; rewrite <- !app_assoc; now rewrite nfirstn_app_exact).
  (* port: none when p is the default port of s, else ":" decimal p, which parse_port reads as p (port_rt);
     in both cases path_tail appends "/" and accessors_of_result reads scheme, host and port off the record *)
  unfold sfx, port_suffix in *. clear sfx.
  destruct (opt_eqb (default_port s) (Some p)) eqn:Edp.
  - change (inp_split_prefix_char 58 []) with (@None (list N)). cbn [pbind]. rewrite andb_false_r.
    rewrite (path_tail dbg hp ho).
    + eexists. split; [reflexivity|].
      unfold ser0. rewrite <- (app_assoc _ tout [47]).
      apply (accessors_of_result hp ho hd); [exact Hfmt|exact Hne|].
      right. split; [reflexivity|]. now apply opt_eqb_spec.
    + unfold ends_with_byte in *. rewrite rev_app_distr. destruct (rev tout) as [|x r] eqn:Er; [|exact Hlast].
      exfalso. apply Hone. apply (f_equal (@rev N)) in Er. now rewrite rev_involutive in Er.
    + rewrite Hser1. change (nlen []) with 0 in HB. lia.
    + rewrite Hser1. lia.
  - change (inp_split_prefix_char 58 (58 :: decimal p)) with (Some (decimal p)).
    unfold parse_port. rewrite Hport. cbn [pbind negb andb orb].
    rewrite opt_eqb_sym, Edp. cbn [pbind]. rewrite andb_false_r.
    assert (Hlen : nlen (58 :: decimal p) = 1 + nlen (decimal p)) by apply nlen_cons.
    rewrite (path_tail dbg hp ho).
    + eexists. split; [reflexivity|].
      replace (((ser0 ++ tout) ++ 58 :: decimal p) ++ [47])
        with (((s ++ [58]) ++ [47; 47]) ++ tout ++ ((58 :: decimal p) ++ [47]))
        by (unfold ser0; rewrite <- !app_assoc; reflexivity).
      apply (accessors_of_result hp ho hd); [exact Hfmt|exact Hne|]. left. reflexivity.
    + apply ends_with_not; [discriminate|]. constructor; [lia|].
      eapply Forall_impl; [|exact Hdigf]. intros x Hx. unfold is_digit in Hx. lia.
    + rewrite nlen_app, Hser1. lia.
    + rewrite nlen_app, Hser1. lia.
Qed.

(* the chars() of  scheme "://" UTF-8(text) [":" port]  *)
Lemma chars_of_serialization s T p : In s five_schemes -> p <= 65535 -> usv_list T ->
  str_chars (tuple_serialization s (utf8_encode T) p) = s ++ 58 :: 47 :: 47 :: T ++ port_suffix s p.
Proof.
  intros H5 Hp HT. rewrite tuple_serialization_eq. unfold str_chars.
  assert (Hs : Forall (fun c => c < 128) s) by (eapply Forall_impl; [|exact (five_chars s H5)]; cbv beta; intros; lia).
  assert (Hsfx : Forall (fun c => c < 128) (port_suffix s p)).
  { unfold port_suffix. destruct (opt_eqb _ _); [constructor|]. constructor; [lia|]. now apply decimal_ascii. }
  assert (E : s ++ 58 :: 47 :: 47 :: utf8_encode T ++ port_suffix s p = utf8_encode (s ++ [58; 47; 47] ++ T ++ port_suffix s p)).
  { rewrite !utf8_encode_app, (utf8_encode_asc s Hs), (utf8_encode_asc (port_suffix s p) Hsfx).
    rewrite (utf8_encode_asc [58; 47; 47]) by (repeat constructor; lia). reflexivity. }
  rewrite E. rewrite utf8_lossy_encode; [reflexivity|].
  unfold usv_list. apply Forall_app. split; [exact (asc_usv s Hs)|].
  apply Forall_app. split; [apply asc_usv; repeat constructor; lia|].
  apply Forall_app. split; [exact HT|exact (asc_usv _ Hsfx)].
Qed.

(* parsing  scheme "://" UTF-8(text) [":" port]  gives a URL with origin (scheme, h, port), whenever the text consists
   of scalar values, the host scan stops at its end, Host::parse reads it as h, and Display writes h as a non-empty
   text that does not end in '/' *)
Lemma rt_text_u s c t h p :
  In s five_schemes -> p <= 65535 ->
  scannable_u (c :: t) -> usv_list (c :: t) -> c <> 47 -> c <> 92 -> hp (c :: t) = Ok h ->
  hd h = host_fmt hd h -> host_fmt hd h <> [] -> ends_with_byte 47 (host_fmt hd h) = false ->
  nlen (tuple_serialization s (host_fmt hd h) p) < U32_MAX_P ->
  exists w, url_parse dbg hp ho hd (tuple_serialization s (utf8_encode (c :: t)) p) = POk w
            /\ forall f k, url_origin_fuel dbg hp ho hd f k w = OOk (Tuple s h p) k.
Proof.
  intros H5 Hp Hsc Hu Hc47 Hc92 Hhp Hhd Hne Hlast HB.
  rewrite tuple_serialization_eq in HB. rewrite !nlen_app, !nlen_cons, nlen_app in HB.
  destruct (parse_tuple_text_u s c t (host_fmt hd h) h p H5 Hsc Hc47 Hc92 Hhp Hhd eq_refl Hne Hlast Hp ltac:(lia))
    as (w & Hw & Hsch & Hhost & Hport).
  exists w. split.
  - unfold url_parse. rewrite (chars_of_serialization s (c :: t) p H5 Hp Hu). exact Hw.
  - intros f k. destruct (tuple_arm dbg hp ho hd f k w s h Hsch H5 Hhost) as (p' & Hp' & Ho).
    rewrite Hport in Hp'. inversion Hp'; subst. exact Ho.
Qed.

End RTU.

(* rt_text_u for a text whose code points are all freec: scannable_u holds by scannable_u_free; c <> 47 and
   c <> 92 follow from freec c *)
Lemma rt_text_free dbg hp ho hd s c t h p :
  In s five_schemes -> p <= 65535 ->
  forallb freec (c :: t) = true -> usv_list (c :: t) -> hp (c :: t) = Ok h ->
  hd h = host_fmt hd h -> host_fmt hd h <> [] -> ends_with_byte 47 (host_fmt hd h) = false ->
  nlen (tuple_serialization s (host_fmt hd h) p) < U32_MAX_P ->
  exists w, url_parse dbg hp ho hd (tuple_serialization s (utf8_encode (c :: t)) p) = POk w
            /\ forall f k, url_origin_fuel dbg hp ho hd f k w = OOk (Tuple s h p) k.
Proof.
  intros H5 Hp Hf Hu. pose proof (freec_facts c ltac:(cbn [forallb] in Hf; apply andb_true_iff in Hf; tauto)) as Hc.
  apply (rt_text_u dbg hp ho hd s c t h p H5 Hp (scannable_u_free _ Hf) Hu); tauto.
Qed.
