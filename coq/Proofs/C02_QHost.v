(* Proofs/C02_QHost.v - L2 for url::quirks::set_hostname and url::quirks::set_host on the canonical forms.
   Both run the host state of the parser on the argument and hand the host to Url::set_host_internal (quirks host
   also the port the port state reads behind ':'), so on a record a host setter acts on (C02_SetHostCanon.hostable:
   not cannot-be-a-base, no "/." marker) the result is the canonical record with the new host (and port) -
   C02_SetHostCanon.shi_hostable - provided the empty host is only stored on a record without userinfo and port:
   - quirks hostname checks port, user name and password itself (three getters, evaluated here on the frame sh_url);
   - quirks host checks user name, old port and new port but NOT the password: a://:pw@h/p -> a://:pw@/p is F-C07-8,
     the class Known_F_C02_10 of C02_Stmt4.v, excluded by known_step3. *)
From RU Require Import Base.Prelude Base.Utf8 Base.Utf8Facts Model.AsciiSet Gen.Tables
  Model.PercentEncoding Model.HostT Model.UrlRecord Model.Parser Model.Setters Model.WF
  Proofs.ListN Proofs.C02_Parts Proofs.C02_Opaque Proofs.C02_Path Proofs.C02_Reach Proofs.C02_AuthParts
  Proofs.C02_Auth Proofs.C02_AuthWf Proofs.C02_AuthSp Proofs.C02_AuthMain Proofs.C02_Canon Proofs.C02_SetPort
  Proofs.C02_Hist Proofs.C02_SetHostFrame Proofs.C02_SetHostCanon Proofs.C02_SetCred Proofs.C02_SetCredCanon
  Proofs.C02_QPort Proofs.C03_WF Proofs.C06_Quirks Proofs.C02_Stmt4.
Open Scope N_scope.
Open Scope list_scope.

(* username() / password() on the userinfo frame *)
Section Getters.
Variable dbg : bool.
Variables (sch X : list N) (dh dp : N) (dq df : option N) (hi : host_internal) (pt : option N).
Notation SH := (sh_url sch X dh dp dq df hi pt).

Lemma sh_has_authority Un Ur : has_authority dbg (SH Un Ur) = Some true.
Proof.
  unfold sh_url, A. cbv zeta. rewrite <- app_assoc. apply has_authority_prefix.
Qed.

Lemma sh_username Un Ur : username dbg (SH Un Ur) = Some Un.
Proof.
  unfold username. rewrite sh_has_authority. cbn [bindo andb].
  change (scheme_end (SH Un Ur)) with (nlen sch). change (username_end (SH Un Ur)) with (nlen (A sch) + nlen Un).
  rewrite <- A_len. destruct Un as [|c r].
  - change (nlen []) with 0. rewrite N.add_0_r, N.ltb_irrefl. reflexivity.
  - replace (nlen (A sch) <? nlen (A sch) + nlen (c :: r)) with true by (rewrite nlen_cons; lia).
    unfold u_slice. rewrite sh_ser. apply slice_o_mid.
Qed.

Lemma sh_password Un P : password dbg (SH Un (58 :: P ++ [64])) = Some (Some P).
Proof.
  unfold password. rewrite sh_has_authority. cbn [bindo andb]. unfold byte_is, byte_at, u_slice.
  rewrite (sh_fields sch X dh dp dq df hi pt Un _ _ eq_refl).
  cbn [ser scheme_end username_end host_start host_end hosti port path_start query_start fragment_start].
  (* the text split behind ':' and in front of '@' *)
  set (B := (A sch ++ Un) ++ [58]).
  assert (A sch ++ Un ++ (58 :: P ++ [64]) ++ X = B ++ P ++ 64 :: X) as ->
    by (unfold B; rewrite <- !app_assoc; cbn [app]; rewrite <- app_assoc; reflexivity).
  assert (nlen (A sch) + nlen Un + 1 = nlen B) as -> by (unfold B; rewrite !nlen_app; reflexivity).
  assert (nlen (A sch) + nlen Un + nlen (58 :: P ++ [64]) - 1 = nlen B + nlen P) as ->
    by (unfold B; rewrite !nlen_app, nlen_cons, nlen_app; change (nlen [58]) with 1; change (nlen [64]) with 1; lia).
  replace (nlen (A sch) + nlen Un =? nlen (B ++ P ++ 64 :: X)) with false
    by (symmetry; apply N.eqb_neq; unfold B; rewrite !nlen_app; change (nlen [58]) with 1; lia).
  cbn [negb]. unfold B at 1. rewrite <- (nlen_app (A sch) Un), <- app_assoc. cbn [app]. rewrite nnth_app_at_loc. cbn [bindo]. rewrite N.eqb_refl.
  rewrite (app_assoc B P), <- (nlen_app B P), nnth_app_at_loc. cbn [bindo].
  replace (if dbg then assert_o (64 =? 64) else Some tt) with (Some tt) by (destruct dbg; reflexivity). cbn [bindo].
  rewrite nlen_app, <- app_assoc, slice_o_mid. reflexivity.
Qed.
End Getters.

Section QHost.
Variable dbg : bool.
Variable hp hpo : list N -> result host.
Variable hd : host -> list N.
Hypothesis HRT : HostRT hp hpo hd.
Hypothesis HAb : host_above hp hpo hd.

Notation auth_ok := (auth_ok hp hpo hd).
Notation auth_url := (auth_url hd).
Notation host_ok := (host_ok hp hpo hd).
Notation Canon := (Canon hp hpo hd).
Notation hostable := (hostable hp hpo hd).

(* what the two getters say about the userinfo of a record a host setter acts on *)
Lemma auth_username sch ui h pt p q f : username dbg (auth_url sch ui h pt p q f) = Some (ui_user ui).
Proof. rewrite auth_url_sh. apply sh_username. Qed.

Lemma auth_password_pw sch u0 p0 h pt p q f : password dbg (auth_url sch (UPw u0 p0) h pt p q f) = Some (Some p0).
Proof. rewrite auth_url_sh. cbn [ui_user ui_rest]. apply sh_password. Qed.

Lemma hostable_user_empty u st sch ui pt : hostable u st sch ui pt -> ui_ok ui -> username dbg u = Some [] ->
  ui = UNone \/ exists p0, ui = UPw [] p0.
Proof.
  intros Hu Ok0 E. destruct (hostable_cases hp hpo hd _ _ _ _ _ Hu) as [(segs & last & q & f & K & Hm & -> & -> & -> & ->) | (h & p & q & f & Hnf & K & Kp & ->)]; [left; reflexivity|].
  rewrite auth_username in E. inversion E as [E']. destruct ui as [|a|a b]; cbn [ui_user] in E'.
  - left. reflexivity.
  - exfalso. subst a. exact (proj2 Ok0 eq_refl).
  - right. subst a. exists b. reflexivity.
Qed.

Lemma hostable_ui_ok u st sch ui pt : hostable u st sch ui pt -> ui_ok ui.
Proof.
  intros Hu. destruct (hostable_cases hp hpo hd _ _ _ _ _ Hu) as [(segs & last & q & f & K & Hm & -> & -> & -> & ->) | (h & p & q & f & Hnf & K & Kp & ->)]; [exact I | exact (ak_ui _ _ _ _ _ _ _ _ _ _ _ K)].
Qed.

Lemma hostable_pw_empty u st sch pt p0 : hostable u st sch (UPw [] p0) pt -> q_password dbg u = Some [] -> False.
Proof.
  intros Hu E. remember (UPw [] p0) as ui eqn:Eui.
  destruct (hostable_cases hp hpo hd _ _ _ _ _ Hu) as [(segs & last & q & f & K & Hm & -> & -> & -> & ->) | (h & p & q & f & Hnf & K & Kp & ->)]; [discriminate Eui | subst ui].
  unfold q_password in E. rewrite auth_password_pw in E. cbn [bindo] in E. inversion E as [E'].
  exact (proj2 (proj2 (ak_ui _ _ _ _ _ _ _ _ _ _ _ K)) E').
Qed.

(* has_password_b on the canonical record whose userinfo is ":" pw "@" *)
Lemma auth_has_password sch p0 h pt p q f :
  uname_empty (auth_url sch (UPw [] p0) h pt p q f) = true /\ has_password_b (auth_url sch (UPw [] p0) h pt p q f) = true.
Proof.
  assert (has_authority_b (auth_url sch (UPw [] p0) h pt p q f) = true) as Ha.
  { unfold has_authority_b. cbn [auth_url ser scheme_end]. unfold auth_ser, auth_pre, auth_front.
    rewrite <- !app_assoc. rewrite nskipn_app_len. reflexivity. }
  split.
  - unfold uname_empty. rewrite Ha. cbn [auth_url scheme_end username_end ui_ulen andb]. change (nlen []) with 0.
    replace (nlen sch + 3 <? nlen sch + 3 + 0) with false by lia. reflexivity.
  - unfold has_password_b. rewrite Ha. cbn [andb].
    cbn [auth_url ser username_end ui_ulen]. change (nlen []) with 0. rewrite N.add_0_r.
    assert (auth_ser hd sch (UPw [] p0) h pt p q f
            = (sch ++ [58; 47; 47]) ++ 58 :: (p0 ++ [64]) ++ hd h ++ port_text pt ++ pth_text p ++ qf_text q f) as Es.
    { unfold auth_ser, auth_pre, auth_front. cbn [ui_text]. repeat first [rewrite <- !app_assoc | progress cbn [app]]. reflexivity. }
    rewrite Es. replace (nlen sch + 3) with (nlen (sch ++ [58; 47; 47])) by (rewrite nlen_app; reflexivity).
    rewrite byte_eqb_app. rewrite andb_true_r. apply negb_true_iff. apply N.eqb_neq.
    rewrite (nlen_app (sch ++ [58; 47; 47])), nlen_cons. lia.
Qed.

(* the host state of the parser returns a value of the host parser of the scheme kind *)
Lemma parse_host_hpx st l h rem : st_is_file st = false -> parse_host hp hpo st l = POk (h, rem) ->
  exists t, hpx hp hpo st t = Ok h.
Proof.
  intros Hnf. rewrite (parse_host_unfold hp hpo st Hnf l). destruct (host_scan (st_is_special st) false [] l) as [t rm].
  destruct (scheme_type_eqb st STSpecialNotFile && match t with [] => true | _ => false end); [discriminate|].
  destruct (hpx hp hpo st t) as [h0|e] eqn:E; cbn [of_result pbind]; [|discriminate].
  intros H. inversion H; subst. exists t. exact E.
Qed.

Lemma parse_host_host_ok st l h rem : st_is_file st = false -> parse_host hp hpo st l = POk (h, rem) ->
  (h = HDomain [] -> st_is_special st = false) -> host_ok st h.
Proof.
  intros Hnf Ep He. destruct (parse_host_hpx st l h rem Hnf Ep) as [t Et].
  destruct (host_eq_dec_nil h) as [->|Hne].
  - left. split; [reflexivity | exact (He eq_refl)].
  - exact (hpx_host_ok hp hpo hd HRT HAb st t h Et Hne).
Qed.

Lemma st_not_file_eqb st : st_is_file st = false -> scheme_type_eqb st STFile = false.
Proof. destruct st; [discriminate | reflexivity | reflexivity]. Qed.

(* url::quirks::set_hostname *)
Theorem q_set_hostname_Canon u v u' s : Canon u ->
  known_step2 dbg hp hpo hd u (OQHostname v) = false ->
  q_set_hostname dbg hp hpo hd u v = Some (u', s) -> nlen (ser u') <= U32_MAX_P -> Canon u'.
Proof.
  intros C Hk. unfold q_set_hostname.
  destruct (host_op_classes dbg hp hpo hd u _ C Hk eq_refl) as [Hc | (st & sch & ui & pt & Hh)].
  - rewrite Hc. cbn [bindo]. intros E _. inversion E; subst. exact C.
  - destruct (hostable_facts hp hpo hd HRT u st sch ui pt Hh) as (Es & Est & Hnf & Hc & Eso & Ept & Hui & Hpo & _).
    pose proof (proj1 (proj2 (Canon_fixpoint dbg hp hpo hd HRT u C))) as W.
    rewrite Hc. cbn [bindo negb]. rewrite Es. cbn [bindo]. rewrite Est. rewrite (st_not_file_eqb st Hnf). cbn [andb].
    destruct (parse_host hp hpo st (input_new_no_trim v)) as [[h rem]|e|] eqn:Ep; cbn [pres_ok bindo].
    3:{ discriminate. }
    2:{ intros E _. inversion E; subst. exact C. }
    match goal with |- bindo ?r _ = _ -> _ => destruct r as [rej|] eqn:Er end; cbn [bindo]; [|discriminate].
    destruct rej. { intros E _. inversion E; subst. exact C. }
    assert (h = HDomain [] -> st_is_special st = false /\ ui = UNone /\ pt = None) as Hemp.
    { intros ->. destruct (q_port dbg u) as [p0|] eqn:Eq; cbn [bindo] in Er; [|discriminate Er].
      destruct (username dbg u) as [un|] eqn:Eu; cbn [bindo] in Er; [|discriminate Er].
      destruct (q_password dbg u) as [pw|] eqn:Epw; cbn [bindo] in Er; [|discriminate Er].
      injection Er as Hr. rewrite !orb_false_iff in Hr. destruct Hr as [[[R1 R2] R3] R4].
      split; [destruct st; [discriminate Hnf | discriminate R1 | reflexivity]|].
      destruct p0; [|discriminate R2]. destruct un; [|discriminate R3]. destruct pw; [|discriminate R4].
      split; [|rewrite <- Ept; exact (q_port_empty dbg u W Eq)].
      destruct (hostable_user_empty u st sch ui pt Hh (hostable_ui_ok u st sch ui pt Hh) Eu) as [E|[p0 E]]; [exact E|].
      exfalso. subst ui. exact (hostable_pw_empty u st sch pt p0 Hh Epw). }
    destruct (set_host_internal dbg hd u h None) as [u1|] eqn:E1; [|discriminate]. cbn [bindo].
    intros E Hb. inversion E; subst u1 s. clear E.
    apply (shi_hostable dbg hp hpo hd u st sch ui pt h None u' Hh); try assumption.
    + apply (parse_host_host_ok st _ h rem Hnf Ep). intros E. exact (proj1 (Hemp E)).
    + intros E. exact (proj2 (Hemp E)).
Qed.

(* url::quirks::set_host *)
Theorem q_set_host_Canon u v u' s : (forall t, hp t <> Ok (HDomain [])) -> Canon u ->
  known_step3 dbg hp hpo hd u (OQHost v) = false ->
  q_set_host dbg hp hpo hd u v = Some (u', s) -> nlen (ser u') <= U32_MAX_P -> Canon u'.
Proof.
  intros HN1 C Hk3. unfold known_step3 in Hk3. apply orb_false_iff in Hk3. destruct Hk3 as [Hk K10].
  unfold q_set_host. destruct (host_op_classes dbg hp hpo hd u _ C Hk eq_refl) as [Hc | (st & sch & ui & pt & Hh)].
  - rewrite Hc. cbn [bindo]. intros E _. inversion E; subst. exact C.
  - destruct (hostable_facts hp hpo hd HRT u st sch ui pt Hh) as (Es & Est & Hnf & Hc & Eso & Ept & Hui & Hpo & _).
    rewrite Hc. cbn [bindo negb]. rewrite Es. cbn [bindo]. rewrite Est. rewrite (st_not_file_eqb st Hnf). cbn [andb].
    destruct (parse_host hp hpo st (input_new_no_trim v)) as [[h rem]|e|] eqn:Ep; cbn [pres_ok bindo].
    3:{ discriminate. }
    2:{ intros E _. inversion E; subst. exact C. }
    set (opt_port := match inp_split_prefix_char 58 rem with
                     | Some rem0 => if inp_is_empty rem0 then Some None
                                    else match parse_port CSetter (default_port sch) rem0 with
                                         | POk (p, _) => Some (Some p)
                                         | _ => Some None
                                         end
                     | None => Some None
                     end).
    assert (forall np, opt_port = Some (Some np) -> port_ok (default_port sch) np) as Hnp.
    { intros np E. unfold opt_port in E. destruct (inp_split_prefix_char 58 rem) as [rem0|]; [|discriminate E].
      destruct (inp_is_empty rem0); [discriminate E|].
      destruct (parse_port CSetter (default_port sch) rem0) as [[p r]|e|] eqn:Epp; inversion E; subst.
      exact (parse_port_ok _ _ _ _ _ Epp). }
    destruct opt_port as [op|] eqn:Eop; cbn [bindo]; [|discriminate].
    destruct (username dbg u) as [un|] eqn:Eu; cbn [bindo]; [|discriminate].
    match goal with |- (if ?c then _ else _) = _ -> _ => destruct c eqn:Erej end.
    { intros E _. inversion E; subst. exact C. }
    assert (h = HDomain [] -> st_is_special st = false /\ ui = UNone
                              /\ match op with Some np => np | None => pt end = None) as Hemp.
    { intros ->. cbn [andb] in Erej. rewrite !orb_false_iff in Erej. destruct Erej as [[R1 R2] R3].
      assert (st_is_special st = false) as Esp.
      { destruct (st_is_special st) eqn:Esp; [exfalso | reflexivity].
        destruct (parse_host_hpx st _ _ rem Hnf Ep) as [t Et]. unfold hpx in Et. rewrite Esp in Et. exact (HN1 t Et). }
      split; [exact Esp|]. destruct un; [|discriminate R1]. split.
      - destruct (hostable_user_empty u st sch ui pt Hh (hostable_ui_ok u st sch ui pt Hh) Eu) as [E|[p0 E]]; [exact E|].
        exfalso. subst ui. unfold Known_F_C02_10 in K10. rewrite Eso, Est, Esp in K10. cbn [negb andb] in K10.
        remember (UPw [] p0) as ui eqn:Eui.
        destruct Hh as [sch0 segs last q f K Hm | sch0 ui0 h0 pt0 p q f K | sch0 ui0 h0 pt0 p q f K Kp];
          [discriminate Eui | subst ui0 | subst ui0];
          destruct (auth_has_password sch0 p0 h0 pt0 p q f) as [X1 X2]; rewrite X1, X2 in K10; discriminate K10.
      - rewrite Ept in R3. destruct op as [[np|]|]; [discriminate R2 | reflexivity | destruct pt; [discriminate R3 | reflexivity]]. }
    destruct (set_host_internal dbg hd u h op) as [u1|] eqn:E1; [|discriminate]. cbn [bindo].
    intros E Hb. inversion E; subst u1 s. clear E.
    apply (shi_hostable dbg hp hpo hd u st sch ui pt h op u' Hh); try assumption.
    + apply (parse_host_host_ok st _ h rem Hnf Ep). intros E. exact (proj1 (Hemp E)).
    + intros E. exact (proj2 (Hemp E)).
    + destruct op as [np|]; [exact (Hnp np eq_refl) | exact Hpo].
Qed.
End QHost.
