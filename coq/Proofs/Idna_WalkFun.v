(* Proofs/Idna_WalkFun.v - a FUNCTIONAL description of the two output walks of Uts46::process (uts46.rs 802-913
   and 925-1026), for both error modes, every label-display policy and both build configurations.

   Under the positional invariant that process_inner establishes (when the prefix of the input has not been
   flushed to the sink: domain_name = P ++ the input labels that the entries of already_punycode stand for,
   |P| = passthrough_up_to; relation `cover` of Proofs/Idna_Mark.v), with one already_punycode entry per
   label of domain_buffer (premise `length labels = length aps`; it excludes the arms 805 / 928 of the model), and,
   in the fail-fast mode, no U+FFFD in domain_buffer (premise `ff = true -> efffd labels = false`; it excludes 852):
     - the text a walk writes is the per-label outputs joined by dots (`outs`, `out_label`):
         MixedCaseAscii m     -> m lower-cased (the label of domain_buffer is NOT looked at),
         MixedCasePunycode m  -> the label as Unicode if the policy says so, else m lower-cased,
         other                -> the label as Unicode if the policy says so, else "xn--" ++ Punycode(label);
     - the first walk returns Passthrough exactly when no label forces a write (`stays`), and then the input is
       its own output; with had_errors set it is then that the debug assertions 813 / 844 / 899 fire;
     - the only other panic a walk can reach is a failing Punycode encoder (site 445 and the encoder's own
       sites): the sites 810, 830, 885, 933, 949, 992 are unreachable.
   The statements are walk1_spec and walk2_spec; their conclusions are the predicates Post1 / Post2 below. *)
From RU Require Import Base.Prelude Base.Utf8 Base.U32_c13 Gen.Tables Model.Punycode Model.Uts46
  Proofs.Idna_Sim Proofs.Idna_Api Proofs.Idna_Known Proofs.Idna_Hyp Proofs.Idna_Redisc
  Proofs.Idna_C10_Deny Proofs.Idna_C10_Prefix Proofs.Idna_C10_Inner
  Proofs.Idna_Mark.

Lemma join_dots_nil l rl : join_dots (l :: rl) = [] -> l = [] /\ rl = [].
Proof.
  rewrite join_dots_cons. intros H. apply app_eq_nil in H. destruct H as [H1 H2]. split; [exact H1|].
  destruct rl; [reflexivity|discriminate].
Qed.

(* the text a walk has written *)
Definition wcat (w : wres) : list N := concat (fst w).
Lemma wcat_wcons x r : wcat (wcons x r) = x ++ wcat r.
Proof. reflexivity. Qed.
Lemma wcat_wapp xs r : wcat (wapp xs r) = concat xs ++ wcat r.
Proof. unfold wcat, wapp. cbn [fst]. apply concat_app. Qed.
Lemma snd_wcons x r : snd (wcons x r) = snd r.
Proof. reflexivity. Qed.
Lemma snd_wapp xs r : snd (wapp xs r) = snd r.
Proof. reflexivity. Qed.
Lemma wcat_flush d pte fl k :
  wcat (flush_prefix d pte fl k) = (if fl then [] else firstn (N.to_nat pte) d) ++ wcat k.
Proof. unfold flush_prefix. destruct fl; [reflexivity|apply wcat_wcons]. Qed.
Lemma snd_flush d pte fl k : snd (flush_prefix d pte fl k) = snd k.
Proof. unfold flush_prefix. destruct fl; reflexivity. Qed.

Lemma position_upper_none m : position is_upper m = None -> existsb is_upper m = false.
Proof.
  intros H. apply position_none in H. induction H as [|x r Hx _ IH]; [reflexivity|]. cbn [existsb]. rewrite Hx, IH. reflexivity.
Qed.
Lemma position_upper_some m fu : position is_upper m = Some fu -> existsb is_upper m = true.
Proof.
  revert fu. induction m as [|x r IH]; intros fu H; [discriminate|]. cbn [position] in H. cbn [existsb].
  destruct (is_upper x); [reflexivity|]. destruct (position is_upper r) as [j|]; [|discriminate]. exact (IH j eq_refl).
Qed.
Lemma lower_split m fu : position is_upper m = Some fu ->
  map to_lower m = firstn fu m ++ map to_lower (skipn fu m).
Proof.
  intros H. rewrite <- (firstn_skipn fu m) at 1. rewrite map_app. f_equal.
  apply lower_noupper. exact (position_some _ _ _ H).
Qed.
Lemma len_firstn_lt (m : list N) fu : (fu < length m)%nat -> len (firstn fu m) < len m.
Proof. intros H. unfold len. rewrite firstn_length. lia. Qed.
Lemma classify_error_fffd label : classify_for_punycode label = PcError -> fffd label = true.
Proof.
  rewrite classify_spec. unfold fffd. destruct (is_ascii_l label), (existsb is_fffd label); intros H; try discriminate H; reflexivity.
Qed.
Lemma classify_unicode_iff label : fffd label = false ->
  match classify_for_punycode label with PcUnicode => true | _ => false end = negb (is_ascii_l label).
Proof. unfold fffd. intros H. rewrite classify_spec, H. destruct (is_ascii_l label); reflexivity. Qed.

Section Fun.
Variable cfg : bool.
Variable d : list N.
Variable he : bool.

(* mixed_write, the output block of a MixedCase entry: already flushed; unflushed with / without an upper-case letter *)
Lemma mw_flushed m pc sn sp pte k :
  snd (mixed_write cfg d m he pc sn sp pte true k) = snd (k pte true) /\
  wcat (mixed_write cfg d m he pc sn sp pte true k) = map to_lower m ++ wcat (k pte true).
Proof.
  unfold mixed_write. destruct (position is_upper m) as [fu|] eqn:Ep.
  - split; [reflexivity|]. rewrite wcat_wcons, wcat_wapp, concat_chars, (lower_split m fu Ep), <- app_assoc. reflexivity.
  - split; [reflexivity|]. rewrite wcat_wcons. rewrite (lower_noupper m (position_none _ _ Ep)). reflexivity.
Qed.

Lemma mw_upper m pc sn sp pte k P R : d = P ++ m ++ R -> len P = pte -> existsb is_upper m = true ->
  exists pte', snd (mixed_write cfg d m he pc sn sp pte false k) = snd (k pte' true) /\
    wcat (mixed_write cfg d m he pc sn sp pte false k) = P ++ map to_lower m ++ wcat (k pte' true).
Proof.
  intros Hd HP Hu. unfold mixed_write. destruct (position is_upper m) as [fu|] eqn:Ep.
  2:{ rewrite (position_upper_none m Ep) in Hu. discriminate. }
  pose proof (len_firstn_lt m fu (position_lt _ _ _ Ep)) as Hlt.
  assert (Hne : (pte + len (firstn fu m) =? len d) = false).
  { apply N.eqb_neq. rewrite Hd, !len_app, HP. lia. }
  rewrite Hne, andb_false_r. exists (pte + len (firstn fu m)). split; [reflexivity|].
  rewrite wcat_wcons, wcat_wapp, concat_chars, (lower_split m fu Ep).
  assert (Hd2 : d = (P ++ firstn fu m) ++ (skipn fu m ++ R)).
  { rewrite Hd, <- app_assoc. f_equal. rewrite app_assoc, firstn_skipn. reflexivity. }
  replace (pte + len (firstn fu m)) with (len (P ++ firstn fu m)) by (rewrite len_app, HP; reflexivity).
  rewrite Hd2 at 1. rewrite firstn_len_app. rewrite <- !app_assoc. reflexivity.
Qed.

Lemma mw_noupper m pc sn sp pte k : existsb is_upper m = false ->
  mixed_write cfg d m he pc sn sp pte false k =
    (if pc && (pte + len m =? len d) then (if cfg && he then ([], WPanic sp) else ([], WPass)) else k (pte + len m) false)
  /\ map to_lower m = m.
Proof.
  intros Hu. unfold mixed_write. destruct (position is_upper m) as [fu|] eqn:Ep.
  { rewrite (position_upper_some m fu Ep) in Hu. discriminate. }
  split; [reflexivity|]. exact (lower_noupper m (position_none _ _ Ep)).
Qed.

(* "xn--" ++ Punycode(label), or the panic site: 445 is the unreachable!() of uts46.rs on an encoder overflow *)
Definition enc_label (label : list N) : list N + N :=
  match encode_internal cfg label with Ok o => inl (XN_PREFIX ++ o) | Err => inr 445 | Panic s => inr s end.

Section Outs.
Variable uni : list N -> bool.      (* is this label of domain_buffer written as Unicode? *)

Definition out_label (label : list N) (ip : aal) : list N + N :=
  match ip with
  | MixedCaseAscii m => inl (map to_lower m)
  | MixedCasePunycode m => if uni label then inl label else inl (map to_lower m)
  | AalOther => if uni label then inl label else enc_label label
  end.
(* the outputs of all labels, or the first panic site; stops at the shorter list (users have length labels = length aps) *)
Fixpoint outs (labels : list (list N)) (aps : list aal) : list (list N) + N :=
  match labels, aps with
  | label :: ls, ip :: ips =>
      match out_label label ip with
      | inl o => match outs ls ips with inl os => inl (o :: os) | inr s => inr s end
      | inr s => inr s
      end
  | _, _ => inl []
  end.
(* the label leaves the prefix of the input unflushed *)
Definition stay_label (label : list N) (ip : aal) : bool :=
  match ip with
  | MixedCaseAscii m => negb (existsb is_upper m)
  | MixedCasePunycode m => negb (uni label) && negb (existsb is_upper m)
  | AalOther => false
  end.
Fixpoint stays (labels : list (list N)) (aps : list aal) : bool :=
  match labels, aps with
  | label :: ls, ip :: ips => stay_label label ip && stays ls ips
  | _, _ => true
  end.

Lemma stays_outs labels : forall aps, stays labels aps = true -> exists os, outs labels aps = inl os.
Proof.
  induction labels as [|l r IH]; intros aps H; [exists []; reflexivity|].
  destruct aps as [|ip ips]; [exists []; reflexivity|]. cbn [stays] in H. apply andb_true_iff in H. destruct H as [H1 H2].
  destruct (IH ips H2) as (os & Ho). cbn [outs]. rewrite Ho.
  destruct ip as [m|m|]; cbn [stay_label out_label] in *; [eauto| |discriminate].
  apply andb_true_iff in H1. destruct H1 as [H1 _]. apply negb_true_iff in H1. rewrite H1. eauto.
Qed.
End Outs.

Lemma wpl_spec label k :
  match enc_label label with
  | inl o => snd (write_punycode_label cfg label k) = snd k /\ wcat (write_punycode_label cfg label k) = o ++ wcat k
  | inr s => snd (write_punycode_label cfg label k) = WPanic s
  end.
Proof.
  unfold enc_label, write_punycode_label. destruct (encode_internal cfg label) as [o| |s]; [|reflexivity|reflexivity].
  split; [reflexivity|]. rewrite wcat_wcons, wcat_wapp, concat_chars, <- app_assoc. reflexivity.
Qed.
End Fun.

Lemma outs_mca cfg uni L ap : forall qs ms, length qs = length ms ->
  outs cfg uni (qs ++ L) (map MixedCaseAscii ms ++ ap) =
  match outs cfg uni L ap with inl os => inl (map (map to_lower) ms ++ os) | inr s => inr s end.
Proof.
  induction qs as [|q qs IH]; intros [|m ms] Hl; try discriminate.
  - cbn [app map]. destruct (outs cfg uni L ap); reflexivity.
  - cbn [app map outs out_label]. rewrite (IH ms ltac:(cbn [length] in Hl; lia)). destruct (outs cfg uni L ap); reflexivity.
Qed.

Section Walk1.
Variable cfg : bool.
Variable d : list N.
Variable he : bool.
Variable ff : bool.
Variable p : list N -> list N -> bool -> bool.
Variable tld : list N.
Variable bidi : bool.

(* potentially_punycode, and the decision "written as Unicode" of the first walk *)
Definition pp1 (label : list N) : bool :=
  if ff then negb (is_ascii_l label)
  else match classify_for_punycode label with PcUnicode => true | _ => false end.
Definition uni1 (label : list N) : bool := if pp1 label then p label tld bidi else true.
Definition huo1 (huo : bool) (label : list N) (ip : aal) : bool :=
  match ip with MixedCaseAscii _ => huo | _ => if pp1 label then huo || p label tld bidi else huo end.
Fixpoint huo_fin (huo : bool) (labels : list (list N)) (aps : list aal) : bool :=
  match labels, aps with
  | label :: ls, ip :: ips => huo_fin (huo1 huo label ip) ls ips
  | _, _ => huo
  end.

(* Res1: what the first walk returns, started at some label with `flushed` = the prefix of the input is already in
   the sink, P = that prefix when it is not (the first passthrough_up_to bytes of d), stay = no label from here on
   forces a write, F = the text of the labels from here on, h = the final has_unicode_output.
   Unflushed and nothing forces a write: the input is its own output (P ++ F = d) and the walk returns Passthrough,
   or, with debug assertions and had_errors, panics at one of 813 / 844 / 899.
   Otherwise it ends with WEnd h, having written F (if flushed) or P ++ F.
   Post1: Res1 for the text `tailtext seen os` of the per-label outputs o = inl os (seen = a label came before, so
   a dot comes first); if o = inr s the walk panics at s. *)
Definition Res1 (flushed : bool) (P : list N) (stay : bool) (F : list N) (h : bool) (w : wres) : Prop :=
  if negb flushed && stay then
    P ++ F = d /\ (if cfg && he then exists s, snd w = WPanic s /\ (s = 813 \/ s = 844 \/ s = 899) else snd w = WPass)
  else snd w = WEnd h /\ wcat w = (if flushed then F else P ++ F).
Definition Post1 (flushed : bool) (P : list N) (stay : bool) (o : list (list N) + N) (seen : bool) (h : bool) (w : wres) : Prop :=
  match o with inl os => Res1 flushed P stay (tailtext seen os) h w | inr s => snd w = WPanic s end.

Lemma Res1_shift P X st F h w : Res1 false (P ++ X) st F h w -> Res1 false P st (X ++ F) h w.
Proof. unfold Res1. rewrite <- !app_assoc. auto. Qed.

Lemma wbody_eq label ip huo flushed kk pt :
  wbody cfg p d tld bidi ff he label ip huo flushed kk pt =
  match ip with
  | MixedCaseAscii m => mixed_write cfg d m he true 830 844 pt flushed (kk huo)
  | MixedCasePunycode m =>
      if ff && cfg && (match classify_for_punycode label with PcError => true | _ => false end) then ([], WPanic 852)
      else if uni1 label then flush_prefix d pt flushed (wapp (chars label) (kk (huo1 huo label ip) pt true))
      else mixed_write cfg d m he true 885 899 pt flushed (kk (huo1 huo label ip))
  | AalOther =>
      if ff && cfg && (match classify_for_punycode label with PcError => true | _ => false end) then ([], WPanic 852)
      else if uni1 label then flush_prefix d pt flushed (wapp (chars label) (kk (huo1 huo label ip) pt true))
      else flush_prefix d pt flushed (write_punycode_label cfg label (kk (huo1 huo label ip) pt true))
  end.
Proof.
  destruct ip as [m|m|]; [reflexivity| |]; unfold wbody, uni1, huo1; fold (pp1 label); cbv zeta;
    destruct (pp1 label); reflexivity.
Qed.

Lemma no852 label : (ff = true -> fffd label = false) ->
  ff && cfg && (match classify_for_punycode label with PcError => true | _ => false end) = false.
Proof.
  intros H. destruct ff; [|reflexivity]. destruct (classify_for_punycode label) eqn:E; try apply andb_false_r.
  rewrite (classify_error_fffd label E) in H. specialize (H eq_refl). discriminate.
Qed.

(* KS: the continuation kk (the walk over the remaining labels', aps', entered with seen = true) meets Post1 in
   both states: flushed (first conjunct), and unflushed at any position pt = |P'| with d = P' ++ the input text of
   the remaining entries (second conjunct; stated for labels' <> [] only: the walk over no labels writes nothing,
   whatever `flushed`). *)
Definition KS (labels' : list (list N)) (aps' : list aal) (kk : bool -> N -> bool -> wres) : Prop :=
  (forall h pt, Post1 true [] (stays uni1 labels' aps') (outs cfg uni1 labels' aps') true (huo_fin h labels' aps') (kk h pt true)) /\
  (forall h pt P' rl', labels' <> [] -> d = P' ++ tailtext true rl' -> len P' = pt -> cover aps' rl' ->
     Post1 false P' (stays uni1 labels' aps') (outs cfg uni1 labels' aps') true (huo_fin h labels' aps') (kk h pt false)).

Lemma mixed_spec labels' aps' kk m sn sp h flushed pt P1 rl' :
  length labels' = length aps' -> KS labels' aps' kk -> (sp = 844 \/ sp = 899) ->
  (flushed = false -> d = P1 ++ m ++ tailtext true rl' /\ len P1 = pt /\ cover aps' rl') ->
  match outs cfg uni1 labels' aps' with
  | inl os' => Res1 flushed P1 (negb (existsb is_upper m) && stays uni1 labels' aps') (map to_lower m ++ tailtext true os')
                 (huo_fin h labels' aps') (mixed_write cfg d m he true sn sp pt flushed (kk h))
  | inr s => snd (mixed_write cfg d m he true sn sp pt flushed (kk h)) = WPanic s
  end.
Proof.
  intros Hlen HK Hsp Hpos. destruct HK as [K1 K2]. destruct flushed.
  - destruct (mw_flushed cfg d he m true sn sp pt (kk h)) as [E1 E2]. specialize (K1 h pt). unfold Post1 in K1.
    destruct (outs cfg uni1 labels' aps') as [os'|s]; [|rewrite E1; exact K1].
    unfold Res1 in *. cbn [negb andb] in *. destruct K1 as [K1a K1b]. rewrite E1, E2, K1a, K1b. split; reflexivity.
  - destruct (Hpos eq_refl) as (Hd & HP & Hcv). destruct (existsb is_upper m) eqn:Eu.
    + destruct (mw_upper cfg d he m true sn sp pt (kk h) P1 (tailtext true rl') Hd HP Eu) as (pt' & E1 & E2).
      specialize (K1 h pt'). unfold Post1 in K1.
      destruct (outs cfg uni1 labels' aps') as [os'|s]; [|rewrite E1; exact K1].
      unfold Res1 in *. cbn [negb andb] in *. destruct K1 as [K1a K1b]. rewrite E1, E2, K1a, K1b. split; reflexivity.
    + destruct (mw_noupper cfg d he m true sn sp pt (kk h) Eu) as [E1 E2]. rewrite E1, E2. cbn [negb andb].
      destruct (pt + len m =? len d) eqn:E.
      * apply N.eqb_eq in E.
        assert (Ht : tailtext true rl' = []).
        { apply len_zero. rewrite Hd in E. rewrite !len_app in E. lia. }
        destruct rl' as [|x r]; [|discriminate]. apply cover_nil_r in Hcv. subst aps'.
        destruct labels' as [|? ?]; [|discriminate]. cbn [outs stays tailtext huo_fin].
        unfold Res1. cbn [negb andb]. split; [rewrite Hd; reflexivity|].
        destruct (cfg && he); [|reflexivity]. exists sp. split; [reflexivity|]. destruct Hsp as [-> | ->]; auto.
      * assert (Hne : labels' <> []).
        { intros ->. destruct aps' as [|? ?]; [|discriminate].
          assert (Hr : rl' = []) by (inversion Hcv; reflexivity). rewrite Hr in Hd. cbn [tailtext] in Hd.
          apply N.eqb_neq in E. apply E. rewrite Hd. rewrite !len_app, HP. change (len (@nil N)) with 0. lia. }
        specialize (K2 h (pt + len m) (P1 ++ m) rl' Hne). rewrite <- app_assoc in K2. specialize (K2 Hd).
        rewrite len_app, HP in K2. specialize (K2 eq_refl Hcv). unfold Post1 in K2.
        destruct (outs cfg uni1 labels' aps') as [os'|s]; [|exact K2]. apply Res1_shift. exact K2.
Qed.

Lemma wbody_spec labels' aps' kk label ip huo flushed pt P1 l rl' :
  length labels' = length aps' -> KS labels' aps' kk ->
  (ff = true -> fffd label = false) ->
  (flushed = false -> d = P1 ++ join_dots (l :: rl') /\ len P1 = pt /\ cover (ip :: aps') (l :: rl')) ->
  match out_label cfg uni1 label ip with
  | inl o =>
      match outs cfg uni1 labels' aps' with
      | inl os' => Res1 flushed P1 (stay_label uni1 label ip && stays uni1 labels' aps') (o ++ tailtext true os')
                     (huo_fin (huo1 huo label ip) labels' aps') (wbody cfg p d tld bidi ff he label ip huo flushed kk pt)
      | inr s => snd (wbody cfg p d tld bidi ff he label ip huo flushed kk pt) = WPanic s
      end
  | inr s => snd (wbody cfg p d tld bidi ff he label ip huo flushed kk pt) = WPanic s
  end.
Proof.
  intros Hlen HK Hff Hpos. rewrite wbody_eq.
  assert (HF : flushed = false -> firstn (N.to_nat pt) d = P1).
  { intros Hf. destruct (Hpos Hf) as (Hd & HP & _). rewrite <- HP. rewrite Hd at 1. apply firstn_len_app. }
  assert (HU : forall h, match outs cfg uni1 labels' aps' with
             | inl os' => Res1 flushed P1 false (label ++ tailtext true os') (huo_fin h labels' aps')
                            (flush_prefix d pt flushed (wapp (chars label) (kk h pt true)))
             | inr s => snd (flush_prefix d pt flushed (wapp (chars label) (kk h pt true))) = WPanic s end).
  { intros h. destruct HK as [K1 _]. specialize (K1 h pt). unfold Post1 in K1.
    destruct (outs cfg uni1 labels' aps') as [os'|s]; [|rewrite snd_flush, snd_wapp; exact K1].
    unfold Res1 in *. cbn [negb andb] in K1. rewrite andb_false_r. destruct K1 as [K1a K1b].
    rewrite snd_flush, snd_wapp, wcat_flush, wcat_wapp, concat_chars, K1a, K1b. split; [reflexivity|].
    destruct flushed; [reflexivity|]. rewrite (HF eq_refl). reflexivity. }
  destruct ip as [m|m|]; cbn [out_label stay_label].
  - apply (mixed_spec labels' aps' kk m 830 844 huo flushed pt P1 rl'); [exact Hlen|exact HK|left; reflexivity|]. intros Hf. destruct (Hpos Hf) as (Hd & HP & Hcv).
    inversion Hcv; subst. rewrite join_dots_cons in Hd. repeat split; assumption.
  - rewrite (no852 label Hff). destruct (uni1 label) eqn:Eu; cbn [negb andb]; [apply HU|].
    apply (mixed_spec labels' aps' kk m 885 899 (huo1 huo label (MixedCasePunycode m)) flushed pt P1 rl'); [exact Hlen|exact HK|right; reflexivity|]. intros Hf. destruct (Hpos Hf) as (Hd & HP & Hcv).
    inversion Hcv; subst. rewrite join_dots_cons in Hd. repeat split; assumption.
  - rewrite (no852 label Hff). destruct (uni1 label) eqn:Eu; cbn [negb andb]; [apply HU|].
    pose proof (wpl_spec cfg label (kk (huo1 huo label AalOther) pt true)) as HW.
    destruct (enc_label cfg label) as [o|s]; [|rewrite snd_flush; exact HW]. destruct HW as [W1 W2].
    destruct HK as [K1 _]. specialize (K1 (huo1 huo label AalOther) pt). unfold Post1 in K1.
    destruct (outs cfg uni1 labels' aps') as [os'|s]; [|rewrite snd_flush, W1; exact K1].
    unfold Res1 in *. cbn [negb andb] in K1. rewrite andb_false_r. destruct K1 as [K1a K1b].
    rewrite snd_flush, wcat_flush, W1, W2, K1a, K1b. split; [reflexivity|].
    destruct flushed; [reflexivity|]. rewrite (HF eq_refl). reflexivity.
Qed.

Lemma cover_cons_inv ip aps rl : cover (ip :: aps) rl -> exists l rl', rl = l :: rl'.
Proof. intros H. inversion H; eauto. Qed.

Theorem walk1_spec labels : forall aps seen pte flushed huo P rl,
  length labels = length aps ->
  (ff = true -> efffd labels = false) ->
  (flushed = false -> labels <> [] /\ d = P ++ tailtext seen rl /\ len P = pte /\ cover aps rl) ->
  Post1 flushed P (stays uni1 labels aps) (outs cfg uni1 labels aps) seen (huo_fin huo labels aps)
        (walk1 cfg ff p d tld bidi he labels aps seen pte flushed huo).
Proof.
  induction labels as [|label labels IH]; intros aps seen pte flushed huo P rl Hlen Hff Hpos.
  - destruct aps as [|? ?]; [|discriminate]. destruct flushed; [|destruct (Hpos eq_refl) as [Hx _]; congruence].
    cbn [outs stays huo_fin walk1 Post1]. unfold Res1. cbn [negb andb snd]. split; [reflexivity|]. destruct seen; reflexivity.
  - destruct aps as [|ip aps]; [discriminate|]. cbn [length] in Hlen. assert (Hlen' : length labels = length aps) by lia.
    assert (Hfl : ff = true -> fffd label = false).
    { intros Hf. specialize (Hff Hf). cbn [efffd existsb] in Hff. apply orb_false_iff in Hff. exact (proj1 Hff). }
    assert (Hff' : ff = true -> efffd labels = false).
    { intros Hf. specialize (Hff Hf). cbn [efffd existsb] in Hff. apply orb_false_iff in Hff. exact (proj2 Hff). }
    rewrite walk1_cons_gen. cbv zeta.
    set (kk := fun huo0 pte0 fl0 => walk1 cfg ff p d tld bidi he labels aps true pte0 fl0 huo0).
    assert (HKS : KS labels aps kk).
    { split.
      - intros h pt. apply (IH aps true pt true h [] []); [exact Hlen'|exact Hff'|discriminate].
      - intros h pt P' rl' Hne Hd' HP' Hcv'. apply (IH aps true pt false h P' rl'); [exact Hlen'|exact Hff'|].
        intros _. repeat split; assumption. }
    pose proof (fun fl pt P1 l rl' => wbody_spec labels aps kk label ip huo fl pt P1 l rl' Hlen' HKS Hfl) as HB.
    cbn [outs stays huo_fin].
    destruct flushed.
    + specialize (HB true pte [] [] [] ltac:(discriminate)).
      destruct (out_label cfg uni1 label ip) as [o|s]; [|cbn [Post1]; destruct seen; [rewrite snd_wcons|]; exact HB].
      destruct (outs cfg uni1 labels aps) as [os'|s]; [|cbn [Post1]; destruct seen; [rewrite snd_wcons|]; exact HB].
      cbn [Post1]. unfold Res1 in *. cbn [negb andb] in *. destruct HB as [HB1 HB2].
      destruct seen.
      * rewrite snd_wcons, wcat_wcons, HB1, HB2. cbn [tailtext]. rewrite join_dots_cons. split; reflexivity.
      * rewrite HB1, HB2. cbn [tailtext]. rewrite join_dots_cons. split; reflexivity.
    + destruct (Hpos eq_refl) as (_ & Hd & HP & Hcv). destruct (cover_cons_inv _ _ _ Hcv) as (l & rl' & ->).
      destruct seen.
      * cbn [tailtext] in Hd.
        assert (Hdot : nth (N.to_nat pte) d 256 = DOT) by (rewrite Hd, <- HP; apply nth_len_app).
        rewrite Hdot, N.eqb_refl. cbn [negb]. rewrite andb_false_r.
        destruct (pte + 1 =? len d) eqn:E.
        -- apply N.eqb_eq in E.
           assert (Hj : join_dots (l :: rl') = []).
           { apply len_zero. rewrite Hd in E. rewrite len_app, len_cons1 in E. lia. }
           apply join_dots_nil in Hj. destruct Hj as [-> ->].
           inversion Hcv as [|? ? ? Hc'|? ? ? Hn Hc'|? ? ? ? Hn Hc']; subst; try congruence.
           apply cover_nil_r in Hc'. subst aps. destruct labels as [|? ?]; [|discriminate].
           cbn [out_label outs stay_label stays map existsb negb andb Post1 tailtext join_dots].
           unfold Res1. cbn [negb andb]. split; [rewrite Hd; reflexivity|].
           destruct (cfg && he); [|reflexivity]. exists 813. split; [reflexivity|auto].
        -- specialize (HB false (pte + 1) (P ++ [DOT]) l rl').
           assert (Hpre : false = false -> d = (P ++ [DOT]) ++ join_dots (l :: rl') /\ len (P ++ [DOT]) = pte + 1 /\ cover (ip :: aps) (l :: rl')).
           { intros _. split; [rewrite <- app_assoc; exact Hd|]. split; [rewrite len_app, HP; reflexivity|exact Hcv]. }
           specialize (HB Hpre).
           destruct (out_label cfg uni1 label ip) as [o|s]; [|exact HB].
           destruct (outs cfg uni1 labels aps) as [os'|s]; [|exact HB].
           cbn [Post1 tailtext]. rewrite join_dots_cons. apply Res1_shift in HB. exact HB.
      * cbn [tailtext] in Hd. specialize (HB false pte P l rl' ltac:(intros _; repeat split; assumption)).
        destruct (out_label cfg uni1 label ip) as [o|s]; [|exact HB].
        destruct (outs cfg uni1 labels aps) as [os'|s]; [|exact HB].
        cbn [Post1 tailtext]. rewrite join_dots_cons. exact HB.
Qed.
End Walk1.

Section Walk2.
Variable cfg : bool.
Variable d : list N.
Variable he : bool.

(* one iteration of walk2 with the continuation abstracted as k (the counterpart of wbody in Idna_Api.v);
   mixed_write is called with pass_check = false, so its argument site_pass (here 0) is never used *)
Definition w2body (label : list N) (ip : aal) (flushed : bool) (k : N -> bool -> wres) (pte : N) : wres :=
  match ip with
  | MixedCaseAscii m => mixed_write cfg d m he false 949 0 pte flushed k
  | MixedCasePunycode m =>
      if is_ascii_l label then flush_prefix d pte flushed (wapp (chars label) (k pte true))
      else mixed_write cfg d m he false 992 0 pte flushed k
  | AalOther =>
      if is_ascii_l label then flush_prefix d pte flushed (wapp (chars label) (k pte true))
      else flush_prefix d pte flushed (write_punycode_label cfg label (k pte true))
  end.

Lemma walk2_cons label labels ip aps seen pte flushed :
  walk2 cfg d he (label :: labels) (ip :: aps) seen pte flushed =
  let k := fun pte flushed => walk2 cfg d he labels aps true pte flushed in
  if seen then
    if flushed then wcons [DOT] (w2body label ip flushed k pte)
    else if cfg && negb (nth (N.to_nat pte) d 256 =? DOT) then ([], WPanic 933)
    else w2body label ip flushed k (pte + 1)
  else w2body label ip flushed k pte.
Proof. destruct ip; reflexivity. Qed.

(* Res2 / Post2 / KS2: the same for the second walk, which has no Passthrough exit and no has_unicode_output:
   it ends with WEnd false, having written F (if flushed) or P ++ F; or panics at s when the outputs are inr s. *)
Definition Res2 (flushed : bool) (P : list N) (F : list N) (w : wres) : Prop :=
  snd w = WEnd false /\ wcat w = (if flushed then F else P ++ F).
Definition Post2 (flushed : bool) (P : list N) (o : list (list N) + N) (seen : bool) (w : wres) : Prop :=
  match o with inl os => Res2 flushed P (tailtext seen os) w | inr s => snd w = WPanic s end.
Lemma Res2_shift P X F w : Res2 false (P ++ X) F w -> Res2 false P (X ++ F) w.
Proof. unfold Res2. rewrite <- !app_assoc. auto. Qed.

Definition KS2 (labels' : list (list N)) (aps' : list aal) (k : N -> bool -> wres) : Prop :=
  (forall pt, Post2 true [] (outs cfg is_ascii_l labels' aps') true (k pt true)) /\
  (forall pt P' rl', d = P' ++ tailtext true rl' -> len P' = pt -> cover aps' rl' ->
     Post2 false P' (outs cfg is_ascii_l labels' aps') true (k pt false)).

Lemma mixed_spec2 labels' aps' k m sn flushed pt P1 rl' : KS2 labels' aps' k ->
  (flushed = false -> d = P1 ++ m ++ tailtext true rl' /\ len P1 = pt /\ cover aps' rl') ->
  match outs cfg is_ascii_l labels' aps' with
  | inl os' => Res2 flushed P1 (map to_lower m ++ tailtext true os') (mixed_write cfg d m he false sn 0 pt flushed k)
  | inr s => snd (mixed_write cfg d m he false sn 0 pt flushed k) = WPanic s
  end.
Proof.
  intros [K1 K2] Hpos. destruct flushed.
  - destruct (mw_flushed cfg d he m false sn 0 pt k) as [E1 E2]. specialize (K1 pt). unfold Post2 in K1.
    destruct (outs cfg is_ascii_l labels' aps') as [os'|s]; [|rewrite E1; exact K1].
    unfold Res2 in *. destruct K1 as [K1a K1b]. rewrite E1, E2, K1a, K1b. split; reflexivity.
  - destruct (Hpos eq_refl) as (Hd & HP & Hcv). destruct (existsb is_upper m) eqn:Eu.
    + destruct (mw_upper cfg d he m false sn 0 pt k P1 (tailtext true rl') Hd HP Eu) as (pt' & E1 & E2).
      specialize (K1 pt'). unfold Post2 in K1.
      destruct (outs cfg is_ascii_l labels' aps') as [os'|s]; [|rewrite E1; exact K1].
      unfold Res2 in *. destruct K1 as [K1a K1b]. rewrite E1, E2, K1a, K1b. split; reflexivity.
    + destruct (mw_noupper cfg d he m false sn 0 pt k Eu) as [E1 E2]. rewrite E1, E2. cbn [andb].
      specialize (K2 (pt + len m) (P1 ++ m) rl'). rewrite <- app_assoc in K2. specialize (K2 Hd).
      rewrite len_app, HP in K2. specialize (K2 eq_refl Hcv). unfold Post2 in K2.
      destruct (outs cfg is_ascii_l labels' aps') as [os'|s]; [|exact K2]. apply Res2_shift. exact K2.
Qed.

Lemma w2body_spec labels' aps' k label ip flushed pt P1 l rl' : KS2 labels' aps' k ->
  (flushed = false -> d = P1 ++ join_dots (l :: rl') /\ len P1 = pt /\ cover (ip :: aps') (l :: rl')) ->
  match out_label cfg is_ascii_l label ip with
  | inl o =>
      match outs cfg is_ascii_l labels' aps' with
      | inl os' => Res2 flushed P1 (o ++ tailtext true os') (w2body label ip flushed k pt)
      | inr s => snd (w2body label ip flushed k pt) = WPanic s
      end
  | inr s => snd (w2body label ip flushed k pt) = WPanic s
  end.
Proof.
  intros HK Hpos.
  assert (HF : flushed = false -> firstn (N.to_nat pt) d = P1).
  { intros Hf. destruct (Hpos Hf) as (Hd & HP & _). rewrite <- HP. rewrite Hd at 1. apply firstn_len_app. }
  assert (HU : match outs cfg is_ascii_l labels' aps' with
             | inl os' => Res2 flushed P1 (label ++ tailtext true os') (flush_prefix d pt flushed (wapp (chars label) (k pt true)))
             | inr s => snd (flush_prefix d pt flushed (wapp (chars label) (k pt true))) = WPanic s end).
  { destruct HK as [K1 _]. specialize (K1 pt). unfold Post2 in K1.
    destruct (outs cfg is_ascii_l labels' aps') as [os'|s]; [|rewrite snd_flush, snd_wapp; exact K1].
    unfold Res2 in *. destruct K1 as [K1a K1b].
    rewrite snd_flush, snd_wapp, wcat_flush, wcat_wapp, concat_chars, K1a, K1b. split; [reflexivity|].
    destruct flushed; [reflexivity|]. rewrite (HF eq_refl). reflexivity. }
  destruct ip as [m|m|]; cbn [out_label w2body].
  - apply (mixed_spec2 labels' aps' k m 949 flushed pt P1 rl' HK). intros Hf. destruct (Hpos Hf) as (Hd & HP & Hcv).
    inversion Hcv; subst. rewrite join_dots_cons in Hd. repeat split; assumption.
  - destruct (is_ascii_l label) eqn:Eu; [apply HU|].
    apply (mixed_spec2 labels' aps' k m 992 flushed pt P1 rl' HK). intros Hf. destruct (Hpos Hf) as (Hd & HP & Hcv).
    inversion Hcv; subst. rewrite join_dots_cons in Hd. repeat split; assumption.
  - destruct (is_ascii_l label) eqn:Eu; [apply HU|].
    pose proof (wpl_spec cfg label (k pt true)) as HW.
    destruct (enc_label cfg label) as [o|s]; [|rewrite snd_flush; exact HW]. destruct HW as [W1 W2].
    destruct HK as [K1 _]. specialize (K1 pt). unfold Post2 in K1.
    destruct (outs cfg is_ascii_l labels' aps') as [os'|s]; [|rewrite snd_flush, W1; exact K1].
    unfold Res2 in *. destruct K1 as [K1a K1b].
    rewrite snd_flush, wcat_flush, W1, W2, K1a, K1b. split; [reflexivity|].
    destruct flushed; [reflexivity|]. rewrite (HF eq_refl). reflexivity.
Qed.

Theorem walk2_spec labels : forall aps seen pte flushed P rl,
  length labels = length aps ->
  (flushed = false -> d = P ++ tailtext seen rl /\ len P = pte /\ cover aps rl) ->
  Post2 flushed P (outs cfg is_ascii_l labels aps) seen (walk2 cfg d he labels aps seen pte flushed).
Proof.
  induction labels as [|label labels IH]; intros aps seen pte flushed P rl Hlen Hpos.
  - destruct aps as [|? ?]; [|discriminate]. cbn [outs walk2 Post2]. unfold Res2. rewrite snd_flush, wcat_flush.
    split; [reflexivity|]. destruct flushed; [destruct seen; reflexivity|].
    destruct (Hpos eq_refl) as (Hd & HP & Hcv). assert (Hr : rl = []) by (inversion Hcv; reflexivity). rewrite Hr in Hd.
    assert (Hd' : d = P ++ []) by (destruct seen; exact Hd).
    rewrite <- HP. rewrite Hd' at 1. rewrite firstn_len_app. destruct seen; reflexivity.
  - destruct aps as [|ip aps]; [discriminate|]. cbn [length] in Hlen. assert (Hlen' : length labels = length aps) by lia.
    rewrite walk2_cons. cbv zeta.
    set (k := fun pte0 fl0 => walk2 cfg d he labels aps true pte0 fl0).
    assert (HKS : KS2 labels aps k).
    { split.
      - intros pt. apply (IH aps true pt true [] []); [exact Hlen'|discriminate].
      - intros pt P' rl' Hd' HP' Hcv'. apply (IH aps true pt false P' rl'); [exact Hlen'|].
        intros _. repeat split; assumption. }
    pose proof (fun fl pt P1 l rl' => w2body_spec labels aps k label ip fl pt P1 l rl' HKS) as HB.
    cbn [outs].
    destruct flushed.
    + specialize (HB true pte [] [] [] ltac:(discriminate)).
      destruct (out_label cfg is_ascii_l label ip) as [o|s]; [|cbn [Post2]; destruct seen; [rewrite snd_wcons|]; exact HB].
      destruct (outs cfg is_ascii_l labels aps) as [os'|s]; [|cbn [Post2]; destruct seen; [rewrite snd_wcons|]; exact HB].
      cbn [Post2]. unfold Res2 in *. destruct HB as [HB1 HB2].
      destruct seen.
      * rewrite snd_wcons, wcat_wcons, HB1, HB2. cbn [tailtext]. rewrite join_dots_cons. split; reflexivity.
      * rewrite HB1, HB2. cbn [tailtext]. rewrite join_dots_cons. split; reflexivity.
    + destruct (Hpos eq_refl) as (Hd & HP & Hcv). destruct (cover_cons_inv _ _ _ Hcv) as (l & rl' & ->).
      destruct seen.
      * cbn [tailtext] in Hd.
        assert (Hdot : nth (N.to_nat pte) d 256 = DOT) by (rewrite Hd, <- HP; apply nth_len_app).
        rewrite Hdot, N.eqb_refl. cbn [negb]. rewrite andb_false_r.
        specialize (HB false (pte + 1) (P ++ [DOT]) l rl').
        assert (Hpre : false = false -> d = (P ++ [DOT]) ++ join_dots (l :: rl') /\ len (P ++ [DOT]) = pte + 1 /\ cover (ip :: aps) (l :: rl')).
        { intros _. split; [rewrite <- app_assoc; exact Hd|]. split; [rewrite len_app, HP; reflexivity|exact Hcv]. }
        specialize (HB Hpre).
        destruct (out_label cfg is_ascii_l label ip) as [o|s]; [|exact HB].
        destruct (outs cfg is_ascii_l labels aps) as [os'|s]; [|exact HB].
        cbn [Post2 tailtext]. rewrite join_dots_cons. apply Res2_shift in HB. exact HB.
      * cbn [tailtext] in Hd. specialize (HB false pte P l rl' ltac:(intros _; repeat split; assumption)).
        destruct (out_label cfg is_ascii_l label ip) as [o|s]; [|exact HB].
        destruct (outs cfg is_ascii_l labels aps) as [os'|s]; [|exact HB].
        cbn [Post2 tailtext]. rewrite join_dots_cons. exact HB.
Qed.
End Walk2.
