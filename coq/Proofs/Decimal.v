(* Proofs/Decimal.v - decimal text of a number: the model's `decimal` (Model/Parser.v, used for ports and IPv4
   parts) is the Standard's integer serializer; its digits, value and length; how the port parser reads it back.
   The general facts are by induction on the fuel, which bounds the number of digits; `decimal` runs on fuel 40,
   hence the premise n < 10 ^ 40.  The u16 forms at the end are what the port proofs use. *)
From RU Require Import Base.Prelude Model.UrlRecord Model.Parser Model.Setters Spec.Whatwg.

(* With enough fuel the integer serializer writes, in front of acc, a non-empty string of digits whose value is n. *)
Lemma dec_digits_spec f : forall n acc, n < 10 ^ N.of_nat (S f) ->
  exists D, dec_digits (S f) n acc = D ++ acc /\ decimal_value D = n /\ forallb is_digit D = true /\ D <> [].
Proof.
  induction f as [|f IH]; intros n acc Hn; rewrite Nat2N.inj_succ, N.pow_succ_r' in Hn;
    change (dec_digits (S ?g) n acc)
      with (if n <? 10 then (48 + n mod 10) :: acc else dec_digits g (n / 10) ((48 + n mod 10) :: acc));
    (assert (Hd : is_digit (48 + n mod 10) = true) by (unfold is_digit; lia));
    (destruct (N.ltb_spec n 10) as [Hlt|Hge];
     [exists [48 + n mod 10]; cbn [app forallb decimal_value fold_left]; rewrite Hd;
      repeat split; [lia | discriminate] |]).
  - cbn in Hn. lia.
  - destruct (IH (n / 10) ((48 + n mod 10) :: acc) ltac:(lia)) as (D & -> & HV & HD & _).
    exists (D ++ [48 + n mod 10]). rewrite <- app_assoc, forallb_app. cbn [app forallb]. rewrite HD, Hd.
    unfold decimal_value in *. rewrite fold_left_app, HV. cbn [fold_left].
    repeat split; [lia | now destruct D].
Qed.

(* The serializer's own fuel, 1 + log2 n, is enough. *)
Lemma lt_pow10_log2 n : n < 10 ^ N.of_nat (S (N.to_nat (N.log2 n))).
Proof.
  rewrite Nat2N.inj_succ, N2Nat.id. destruct n as [|p]; [reflexivity|].
  apply N.lt_le_trans with (2 ^ N.succ (N.log2 (N.pos p))); [apply N.log2_spec; lia|].
  apply N.pow_le_mono_l. lia.
Qed.

Lemma serialize_integer_spec n :
  decimal_value (serialize_integer n) = n /\ forallb is_digit (serialize_integer n) = true /\ serialize_integer n <> [].
Proof.
  unfold serialize_integer.
  destruct (dec_digits_spec _ n [] (lt_pow10_log2 n)) as (D & -> & H). now rewrite app_nil_r.
Qed.

(* The Standard's serializer accumulates most-significant first what `decimal_rev` lists least-significant first. *)
Lemma dec_digits_rev f : forall n acc, dec_digits f n acc = rev (decimal_rev f n) ++ acc.
Proof.
  induction f as [|f IH]; intros n acc; [reflexivity|]. cbn [dec_digits decimal_rev rev].
  replace (n / 10 =? 0) with (n <? 10) by lia.
  destruct (n <? 10); [reflexivity|]. rewrite IH, <- app_assoc. reflexivity.
Qed.

(* Fuel beyond the number of digits is not used. *)
Lemma decimal_rev_fuel f : forall g n, n < 10 ^ N.of_nat (S f) -> n < 10 ^ N.of_nat (S g) ->
  decimal_rev (S f) n = decimal_rev (S g) n.
Proof.
  induction f as [|f IH]; intros g n Hf Hg; cbn [decimal_rev]; f_equal;
    destruct (N.eqb_spec (n / 10) 0) as [|Hn]; try reflexivity.
  - cbn in Hf. lia.
  - destruct g as [|g]; [cbn in Hg; lia|].
    rewrite Nat2N.inj_succ, N.pow_succ_r' in Hf, Hg. apply IH; lia.
Qed.

Lemma decimal_serialize_integer n : n < 10 ^ 40 -> decimal n = serialize_integer n.
Proof.
  intros Hn. unfold decimal, serialize_integer. rewrite dec_digits_rev, app_nil_r. f_equal.
  apply decimal_rev_fuel; [exact Hn | apply lt_pow10_log2].
Qed.

Lemma decimal_spec n : n < 10 ^ 40 ->
  decimal_value (decimal n) = n /\ forallb is_digit (decimal n) = true /\ decimal n <> [].
Proof. intros H. rewrite (decimal_serialize_integer n H). apply serialize_integer_spec. Qed.

Lemma length_decimal_rev f n :
  length (decimal_rev (S f) n) = if n <? 10 then 1%nat else S (length (decimal_rev f (n / 10))).
Proof. cbn [decimal_rev length]. replace (n / 10 =? 0) with (n <? 10) by lia. now destruct (n <? 10). Qed.

(* On digits the port loop is the left fold of `decimal_value` (here from any accumulator), as long as the value
   stays a u16: the fold only grows, so no prefix overflows either. *)
Lemma parse_port_loop_digits ctx : forall l port any,
  forallb is_digit l = true -> fold_left (fun a d => a * 10 + (d - 48)) l port <= 65535 ->
  parse_port_loop ctx l port any
  = POk (fold_left (fun a d => a * 10 + (d - 48)) l port, match l with [] => any | _ => true end, []).
Proof.
  assert (mono : forall l a, a <= fold_left (fun a d => a * 10 + (d - 48)) l a).
  { induction l as [|d l IH]; intros a; cbn [fold_left]; [lia|].
    apply N.le_trans with (a * 10 + (d - 48)); [lia | apply IH]. }
  induction l as [|c l IH]; intros port any Hd Hv; cbn [parse_port_loop fold_left].
  - reflexivity.
  - cbn [forallb fold_left] in Hd, Hv. apply andb_true_iff in Hd. destruct Hd as [Hc Hd].
    replace (is_tnl c) with false by (unfold is_tnl, is_digit in *; lia). rewrite Hc.
    pose proof (mono l (port * 10 + (c - 48))).
    replace (65535 <? port * 10 + (c - 48)) with false by lia.
    rewrite IH by assumption. now destruct l.
Qed.

Lemma u16_decimal_fuel p : p <= 65535 -> p < 10 ^ 40.
Proof. intros H. apply N.le_lt_trans with 65535; [exact H | reflexivity]. Qed.

Lemma decimal_serialize p : p <= 65535 -> decimal p = serialize_integer p.
Proof. intros H. apply decimal_serialize_integer, u16_decimal_fuel, H. Qed.

Lemma count_digits_decimal p : p <= 65535 -> count_digits p = nlen (decimal p).
Proof.
  (* a u16 has at most five digits: five steps of the generator, one case per digit count *)
  intros H. unfold nlen, decimal, count_digits. rewrite rev_length. do 5 rewrite length_decimal_rev.
  destruct (N.leb_spec p 9); [replace (p <? 10) with true by lia; reflexivity|].
  replace (p <? 10) with false by lia.
  destruct (N.leb_spec p 99); [replace (p / 10 <? 10) with true by lia; reflexivity|].
  replace (p / 10 <? 10) with false by lia.
  destruct (N.leb_spec p 999); [replace (p / 10 / 10 <? 10) with true by lia; reflexivity|].
  replace (p / 10 / 10 <? 10) with false by lia.
  destruct (N.leb_spec p 9999); [replace (p / 10 / 10 / 10 <? 10) with true by lia; reflexivity|].
  replace (p / 10 / 10 / 10 <? 10) with false by lia.
  replace (p / 10 / 10 / 10 / 10 <? 10) with true by lia. reflexivity.
Qed.

Lemma port_rt p : p <= 65535 ->
  parse_port_loop CUrlParser (decimal p) 0 false = POk (p, true, []) /\ forallb is_digit (decimal p) = true.
Proof.
  intros Hp. destruct (decimal_spec p (u16_decimal_fuel p Hp)) as (HV & HD & HN). split; [|exact HD].
  unfold decimal_value in HV. rewrite parse_port_loop_digits; rewrite ?HV; try assumption.
  destruct (decimal p); [contradiction | reflexivity].
Qed.
