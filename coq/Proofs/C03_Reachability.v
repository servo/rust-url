(* Proofs/C03_Reachability.v - "every reachable Url": the reach relation over parse, join, the two file-path
   constructors and ALL 19 mutators (successful or failing calls), and its invariant wfh = wf_b /\ host_text_ok.
     reach03a dbg hp hpo hd u :
       parse_url without a base; parse_url against a reached base that satisfies base_ok (C04: well-formed,
       and a special base is not cannot-be-a-base); Url::from_file_path / from_directory_path of a byte
       string; a call o of C02's operation type with Rust-typed arguments (op_args_ok) whose result either
       is the receiver itself (every failing call is: C06_atomic) or lies outside the computable exclusion
       excl03 of C03_ReachAll.v.
   known03 u o u' = negb (url_eqb u' u) && excl03 u o u' is the exclusion as one boolean.
   file_ctor_rec: both constructors return file_rec P with file_path_ok P, so a property of their records is a
   property of such a P.  reach03a_closed: what a predicate needs in order to hold of every record of reach03a. *)
From RU Require Import Base.Prelude Model.HostT Model.UrlRecord Model.Parser Model.FilePath Proofs.C02_Reach Proofs.C05_Enc
  Proofs.C06_List Proofs.C06_WFI Proofs.C06_Main Proofs.C04_ParseTotal Proofs.C03_ReachParts Proofs.C03_ReachFile
  Proofs.C03_ReachAll Proofs.C20_Path Proofs.C20_RT.
Open Scope N_scope.
Open Scope list_scope.

(* url_eqb decides equality *)
Lemma hi_eqb_true03 a b : hi_eqb a b = true -> a = b.
Proof.
  destruct a, b; cbn [hi_eqb]; intros H; try discriminate; try reflexivity.
  - apply N.eqb_eq in H. subst. reflexivity.
  - apply list_eqb_spec in H. subst. reflexivity.
Qed.

Lemma opt_eqb_true03 a b : opt_eqb a b = true -> a = b.
Proof. destruct a, b; cbn [opt_eqb]; intros H; try discriminate; try reflexivity. apply N.eqb_eq in H. subst. reflexivity. Qed.

Lemma url_eqb_true03 u v : url_eqb u v = true -> u = v.
Proof.
  destruct u as [s1 a1 b1 c1 d1 e1 f1 g1 h1 i1], v as [s2 a2 b2 c2 d2 e2 f2 g2 h2 i2]. unfold url_eqb.
  cbn [ser scheme_end username_end host_start host_end hosti port path_start query_start fragment_start].
  intros H. repeat (apply andb_true_iff in H; destruct H as [H ?]).
  apply list_eqb_spec in H.
  repeat match goal with X : (_ =? _) = true |- _ => apply N.eqb_eq in X end.
  repeat match goal with X : opt_eqb _ _ = true |- _ => apply opt_eqb_true03 in X end.
  match goal with X : hi_eqb _ _ = true |- _ => apply hi_eqb_true03 in X end.
  subst. reflexivity.
Qed.

Definition known03 (u : url) (o : op) (u' : url) : bool := negb (url_eqb u' u) && excl03 u o u'.

Lemma known03_false u o u' : known03 u o u' = false -> u' = u \/ excl03 u o u' = false.
Proof.
  unfold known03. intros H. apply andb_false_iff in H. destruct H as [H|H]; [left | right; exact H].
  apply negb_false_iff in H. exact (url_eqb_true03 _ _ H).
Qed.

(* the records the file-path constructors build *)
(* file_rec P, where P starts with '/' and consists of encoded pieces and '/': bytes of C05's alphabet other than
   '?' and '#' *)
Definition file_byte (x : N) : Prop := ok_byte x /\ no_qh x = true.
Definition file_path_ok (P : list N) : Prop := (exists r, P = 47 :: r) /\ Forall file_byte P.

Lemma file_byte_47 : file_byte 47.
Proof. split; [unfold ok_byte; lia | reflexivity]. Qed.

Lemma enc_file_bytes c : bytes c -> Forall file_byte (enc c).
Proof.
  intros Hb. apply Forall_forall. intros x Hx. split.
  - exact (proj1 (Forall_forall _ _) (encode_ok _ c Hb T_SPECIAL_PATH_SEGMENT_ctl) x Hx).
  - unfold no_qh. apply negb_true_iff, orb_false_iff.
    split; apply N.eqb_neq; intros ->; revert Hx; unfold enc; apply encode_avoids; try exact Hb;
      try (vm_compute; reflexivity); discriminate.
Qed.

Lemma join_slash_file_bytes ks : Forall bytes ks -> Forall file_byte (join_slash (map enc ks)).
Proof.
  induction 1 as [|k ks Hk _ IH]; [constructor|]. cbn [map]. rewrite join_slash_cons.
  constructor; [exact file_byte_47|]. apply Forall_app. split; [exact (enc_file_bytes k Hk) | exact IH].
Qed.

Lemma url_path_of_ok ks : Forall bytes ks -> file_path_ok (url_path_of ks).
Proof.
  intros Hb. pose proof (join_slash_file_bytes ks Hb) as F.
  destruct ks as [|k ks]; [split; [exists []; reflexivity | constructor; [exact file_byte_47 | constructor]]|].
  split; [|exact F]. cbn [url_path_of map]. rewrite join_slash_cons. eexists. reflexivity.
Qed.

Lemma dir_path_of_ok ks : Forall bytes ks -> file_path_ok (dir_path_of ks).
Proof.
  intros Hb. unfold dir_path_of. split.
  - destruct ks as [|k ks]; [exists []; reflexivity|]. cbn [map]. rewrite join_slash_cons. eexists. reflexivity.
  - apply Forall_app. split; [exact (join_slash_file_bytes ks Hb) | constructor; [exact file_byte_47 | constructor]].
Qed.

Theorem file_ctor_rec p u : bytes p -> from_file_path p = FOk u \/ from_directory_path p = FOk u ->
  exists P, u = file_rec P /\ file_path_ok P.
Proof.
  intros Hb H. pose proof (kept_bytes p Hb) as Hk. destruct (path_is_absolute p) eqn:Ha.
  - rewrite (from_file_path_spec p Hb Ha), (from_directory_path_spec p Hb Ha) in H.
    destruct H as [H|H]; inversion H; eexists; (split; [reflexivity|]);
      [exact (url_path_of_ok _ Hk) | exact (dir_path_of_ok _ Hk)].
  - destruct (from_file_path_rel p Ha) as [E1 E2]. rewrite E1, E2 in H. destruct H; discriminate.
Qed.

Lemma file_path_no_qh P : file_path_ok P -> forallb no_qh P = true.
Proof. intros [_ F]. apply forallb_forall. intros x Hx. exact (proj2 (proj1 (Forall_forall _ _) F x Hx)). Qed.

Lemma file_rec_wfh P : file_path_ok P -> wfh (file_rec P).
Proof.
  intros HP. pose proof (file_path_no_qh P HP) as Hq. destruct HP as [(r & ->) _].
  change (file_rec (47 :: r)) with (file_url (s_file_css ++ 47 :: r) 7 7 HI_None None None).
  apply file_front_wf.
  - apply file_css_pre.
  - lia.
  - reflexivity.
  - change 7 with (nlen s_file_css). rewrite nskipn_app_exact. exact Hq.
  - intros _. reflexivity.
  - intros X. contradiction.
Qed.

(* the file records are possible bases *)
Lemma file_rec_base_ok P : file_path_ok P -> base_ok (file_rec P) = true.
Proof.
  intros HP. unfold base_ok. rewrite (proj1 (file_rec_wfh P HP)). cbn [andb]. apply orb_true_iff. right.
  destruct HP as [(r & ->) _]. reflexivity.
Qed.

Theorem from_file_path_wfh p u : bytes p -> from_file_path p = FOk u -> wfh u.
Proof. intros Hb H. destruct (file_ctor_rec p u Hb (or_introl H)) as (P & -> & HP). exact (file_rec_wfh P HP). Qed.

Theorem from_directory_path_wfh p u : bytes p -> from_directory_path p = FOk u -> wfh u.
Proof. intros Hb H. destruct (file_ctor_rec p u Hb (or_intror H)) as (P & -> & HP). exact (file_rec_wfh P HP). Qed.

Theorem from_file_path_base_ok p u : bytes p -> from_file_path p = FOk u -> base_ok u = true.
Proof. intros Hb H. destruct (file_ctor_rec p u Hb (or_introl H)) as (P & -> & HP). exact (file_rec_base_ok P HP). Qed.

Theorem from_directory_path_base_ok p u : bytes p -> from_directory_path p = FOk u -> base_ok u = true.
Proof. intros Hb H. destruct (file_ctor_rec p u Hb (or_intror H)) as (P & -> & HP). exact (file_rec_base_ok P HP). Qed.

Section Reach.
Variable dbg : bool.
Variable hp hpo : list N -> result host.
Variable hd : host -> list N.

Inductive reach03a : url -> Prop :=
| RA_parse ovr input u : parse_url dbg hp hpo hd ovr None input = POk u -> reach03a u
| RA_join ovr b input u :
    reach03a b -> base_ok b = true -> parse_url dbg hp hpo hd ovr (Some b) input = POk u -> reach03a u
| RA_file p u : bytes p -> from_file_path p = FOk u -> reach03a u
| RA_dir p u : bytes p -> from_directory_path p = FOk u -> reach03a u
| RA_step u o u' :
    reach03a u -> op_args_ok o -> known03 u o u' = false -> apply_op dbg hp hpo hd u o = Some u' -> reach03a u'.

(* Induction over reach03a with the two cases every use shares already split off: a record of a file-path
   constructor is file_rec P, and a step outside known03 that changes the record is outside excl03. *)
Lemma reach03a_closed (X : url -> Prop) :
  (forall ovr input u, parse_url dbg hp hpo hd ovr None input = POk u -> X u) ->
  (forall ovr b input u, reach03a b -> X b -> base_ok b = true ->
     parse_url dbg hp hpo hd ovr (Some b) input = POk u -> X u) ->
  (forall P, file_path_ok P -> X (file_rec P)) ->
  (forall u o u', reach03a u -> X u -> op_args_ok o -> excl03 u o u' = false ->
     apply_op dbg hp hpo hd u o = Some u' -> X u') ->
  forall u, reach03a u -> X u.
Proof.
  intros Xp Xj Xf Xs u R. induction R as
    [ovr input u Hp | ovr b input u Rb IHb Hb Hp | p u Hb H | p u Hb H | u o u' R IH Ha G H].
  - exact (Xp ovr input u Hp).
  - exact (Xj ovr b input u Rb IHb Hb Hp).
  - destruct (file_ctor_rec p u Hb (or_introl H)) as (P & -> & HP). exact (Xf P HP).
  - destruct (file_ctor_rec p u Hb (or_intror H)) as (P & -> & HP). exact (Xf P HP).
  - destruct (known03_false u o u' G) as [->|G']; [exact IH | exact (Xs u o u' R IH Ha G' H)].
Qed.

Theorem reach03a_wfh : HostWf hp hpo hd -> IpDisp hd -> forall u, reach03a u -> wfh u.
Proof.
  intros HW HIP. apply reach03a_closed.
  - intros ovr input u Hp. exact (parse_url_wf_all dbg hp hpo hd ovr HW None input u I Hp).
  - intros ovr b input u _ [_ Tb] Hb Hp. exact (parse_url_wf_all dbg hp hpo hd ovr HW (Some b) input u (conj Hb Tb) Hp).
  - exact file_rec_wfh.
  - intros u o u' _ K Ha G H. exact (step03 dbg hp hpo hd HW u o u' HIP K Ha G H).
Qed.

(* the older relation (C03_ReachHist.reach03) is a part of it - see Properties/C03.v *)
End Reach.
