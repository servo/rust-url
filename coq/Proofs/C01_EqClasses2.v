(* Proofs/C01_EqClasses2.v - the class "scheme://authority..." (non-special scheme, no base) of the C01
   equivalence: recogniser on the specification side, class theorem, and the proved classes assembled
   again with it (in_proved_class2 / partial_equivalence2 / partial_equivalence_strict2). *)
From RU Require Import Base.Prelude Model.HostT Model.UrlRecord Model.Parser Model.Setters Spec.Whatwg
  Proofs.C02_Parts Proofs.C08_Input Proofs.C01_EqRun Proofs.C01_EqApi Proofs.C01_EqRef Proofs.C01_EqPath
  Proofs.C01_EqClasses Proofs.C01_EqAuthSpec Proofs.C01_EqAuthModel Proofs.C01_EqAuth.

(* the recogniser, on the Standard's cuts of the cleaned text *)
(* excluded: (a) the authority is exactly ":@" (finding: the model drops the empty credentials and
   accepts the empty host; the Standard fails);  (b) a valid port number directly followed by '\'
   (finding F-C01-8);  (c) a ".." that would pop a drive-letter-shaped segment (finding F-C01-9) *)
Definition auth_class_ok (T : list N) : bool :=
  negb (list_eqb (a_part T) [58; 64]) && negb (auth_port_bslash T)
  && match auth_path_text T with c :: r => if c =? 47 then spath_ok r [] [] else true | [] => true end.

Definition in_class_authority (input : list N) : bool :=
  match spec_scheme (spec_clean input) with
  | Some (sch, c1 :: c2 :: T) => negb (is_special_scheme sch) && (c1 =? 47) && (c2 =? 47) && auth_class_ok T
  | _ => false
  end.

(* the one string the host parsers of the two sides are applied to *)
Definition class_host_text (input : list N) : list N :=
  match spec_scheme (spec_clean input) with
  | Some (_, _ :: _ :: T) => auth_host_text T
  | _ => []
  end.

Lemma related_href dbg shs u su : related dbg shs u su -> ser u = get_href shs su.
Proof.
  intros R. pose proof (rel_api _ _ _ _ R) as A. rewrite (api_of_model_eval dbg u (rel_wf _ _ _ _ R)) in A.
  unfold spec_api_list in A. injection A as A _. exact A.
Qed.

Section Class.
Variable dbg : bool.
Variable hp hpo : list N -> result host.
Variable hd : host -> list N.
Variable ovr : option (list N -> list N).
Variable shp : bool -> list N -> option spec_host.
Variable shs : spec_host -> list N.

(* specification side *)
Theorem spec_authority input sch T :
  spec_scheme (spec_clean input) = Some (sch, 47 :: 47 :: T) -> is_special_scheme sch = false ->
  match sauth shp sch T with
  | Some su => spec_basic_url_parse shp input None = BDone su
  | None => exists uf, spec_basic_url_parse shp input None = BFailure uf
  end.
Proof.
  intros Hs Hnsp. set (inp := spec_clean input) in *.
  assert (forall res, Runs shp inp None (at_pos StAuthority
            (firstn (length inp - length T) inp) [] false false false (set_scheme empty_url sch)) res ->
          spec_basic_url_parse shp input None = res) as Hrun.
  { intros res HR. apply spec_parse_of_runs. fold inp.
    destruct (runs_scheme shp inp None sch (47 :: 47 :: T) res Hs) as (pre & Hin & K). apply K. clear K.
    apply (runs_scheme_colon_slash shp inp None pre sch (47 :: T) res Hin Hnsp).
    assert (inp = (pre ++ [58; 47]) ++ 47 :: T) as Hin2 by (rewrite Hin; repeat rewrite <- app_assoc; reflexivity).
    apply (runs_poa_slash shp inp None (pre ++ [58; 47]) T false false false _ res Hin2).
    assert (firstn (length inp - length T) inp = (pre ++ [58; 47]) ++ [47]) as E.
    { assert (inp = ((pre ++ [58; 47]) ++ [47]) ++ T) as Hin3 by (rewrite Hin; repeat rewrite <- app_assoc; reflexivity).
      rewrite Hin3. apply firstn_len_sub. }
    rewrite <- E. exact HR. }
  assert (inp = firstn (length inp - length T) inp ++ T) as Hin.
  { destruct (runs_scheme shp inp None sch (47 :: 47 :: T) BOutOfFuel Hs) as (pre & Hin & _).
    assert (inp = (pre ++ [58; 47; 47]) ++ T) as Hin3 by (rewrite Hin; repeat rewrite <- app_assoc; reflexivity).
    rewrite Hin3. rewrite firstn_len_sub. reflexivity. }
  pose proof (runs_authority shp inp None _ T sch Hin Hnsp) as RA.
  destruct (sauth shp sch T) as [su|].
  - apply Hrun. exact RA.
  - destruct RA as [uf K]. exists uf. apply Hrun. exact K.
Qed.

(* the Standard succeeds: the model reports Overflow and the Standard's href is longer than u32::MAX
   bytes, or it succeeds with a related record (same ten API strings); the Standard fails: so does
   the model *)
Definition agree_rel_strict (m : pres url) (s : parse_outcome) : Prop :=
  match s with
  | BDone su => (m = PErr Overflow /\ U32_MAX_P < nlen (get_href shs su))
                \/ exists u, m = POk u /\ related dbg shs u su
  | BFailure _ => exists e, m = PErr e
  | BOutOfFuel => False
  end.

Lemma split_ss rem T : usv_list rem -> ntnl rem = 47 :: 47 :: T ->
  exists l, inp_split_prefix_str s_ss rem = Some l /\ ntnl l = T /\ usv_list l.
Proof.
  intros Hu H. destruct (inp_next_some rem 47 (47 :: T) H) as (r1 & En1 & Er1 & _).
  destruct (inp_next_some r1 47 T Er1) as (r2 & En2 & Er2 & _).
  exists r2. unfold s_ss. cbn [inp_split_prefix_str]. rewrite En1. cbn [N.eqb Pos.eqb]. rewrite En2. cbn [N.eqb Pos.eqb].
  split; [reflexivity|]. split; [exact Er2|].
  exact (inp_next_usv r1 47 r2 (inp_next_usv rem 47 r1 Hu En1) En2).
Qed.

Theorem class_authority input : usv_list input -> in_class_authority input = true ->
  host_agree hpo hd shp shs (class_host_text input) ->
  agree_rel_strict (parse_url dbg hp hpo hd ovr None input) (spec_basic_url_parse shp input None).
Proof.
  intros Hu Hc HA. unfold in_class_authority, class_host_text in *.
  destruct (spec_scheme (spec_clean input)) as [[sch rest]|] eqn:Es; [|discriminate].
  destruct rest as [|c1 [|c2 T]]; try discriminate.
  apply andb_true_iff in Hc. destruct Hc as [Hc Hok]. apply andb_true_iff in Hc. destruct Hc as [Hc H2].
  apply andb_true_iff in Hc. destruct Hc as [H0 H1]. apply N.eqb_eq in H1, H2. subst c1 c2.
  assert (is_special_scheme sch = false) as Hnsp by (destruct (is_special_scheme sch); [discriminate | reflexivity]).
  pose proof (not_special_type sch Hnsp) as Hns.
  unfold auth_class_ok in Hok. apply andb_true_iff in Hok. destruct Hok as [Hok Hc3].
  apply andb_true_iff in Hok. destruct Hok as [Hc1 Hc2]. apply negb_true_iff in Hc1, Hc2.
  pose proof (spec_authority input sch T Es Hnsp) as HS.
  destruct (spec_scheme_input input _ _ Hu Es) as (rem & Hps & Hrem & Hur).
  destruct (split_ss rem T Hur Hrem) as (l & Hss & Hl & Hul).
  pose proof (parse_scheme_out _ _ _ Hps) as Hcan.
  assert (match auth_path_text (ntnl l) with c :: r => if c =? 47 then spath_ok r [] [] = true else True | [] => True end) as Hc3'.
  { rewrite Hl. destruct (auth_path_text T) as [|c r]; [exact I|]. destruct (c =? 47); [exact Hc3 | exact I]. }
  rewrite <- Hl in Hc1, Hc2, HA.
  pose proof (model_auth dbg hp hpo hd ovr shp shs sch l Hul Hcan Hns Hc1 Hc2 Hc3' HA) as HM. cbv zeta in HM.
  rewrite Hl in HM.
  assert (parse_url dbg hp hpo hd ovr None input
          = (' se <~ to_u32 (nlen sch) ;; after_double_slash dbg hp hpo hd ovr CUrlParser STNotSpecial se (sch ++ [58]) l)) as Epu.
  { unfold parse_url. rewrite Hps. unfold parse_with_scheme. rewrite Hns. unfold parse_non_special. rewrite Hss. reflexivity. }
  rewrite Epu.
  destruct (sauth shp sch T) as [su|].
  - rewrite HS. cbn [agree_rel_strict]. destruct HM as (u & HO & R & Hle).
    pose proof (related_href dbg shs u su R) as Eh. rewrite <- Eh.
    assert (oob (U32_MAX_P < nlen (ser u))
                (' se <~ to_u32 (nlen sch) ;; after_double_slash dbg hp hpo hd ovr CUrlParser STNotSpecial se (sch ++ [58]) l) u) as HO'.
    { eapply oob_bind; [apply oob_u32; intros K; lia | exact HO]. }
    destruct HO' as [[E B]|E]; [left; split; assumption | right; exists u; split; assumption].
  - destruct HS as [uf ->]. cbn [agree_rel_strict].
    destruct (to_u32 (nlen sch)) as [se| |] eqn:Eu; cbn [pbind].
    + apply to_u32_inv in Eu. destruct Eu as [-> _]. exact HM.
    + exists e. reflexivity.
    + unfold to_u32 in Eu. destruct (nlen sch <=? U32_MAX_P); discriminate Eu.
Qed.

End Class.

(* the proved classes, assembled again *)
Definition in_proved_class2 (sbase : option spec_url) (input : list N) : bool :=
  in_proved_class sbase input
  || match sbase with None => in_class_authority input | Some _ => false end.

(* the hypothesis on the host functions concerns the authority class only, and there only the one
   string the host parsers are applied to *)
Definition host_hyp (hpo : list N -> result host) (hd : host -> list N)
           (shp : bool -> list N -> option spec_host) (shs : spec_host -> list N)
           (sbase : option spec_url) (input : list N) : Prop :=
  sbase = None -> in_class_authority input = true -> host_agree hpo hd shp shs (class_host_text input).

Lemma agree_strict_agree dbg shs m s : agree_strict dbg shs m s -> agree dbg shs m s.
Proof.
  unfold agree_strict, agree. destruct s as [su|u|]; [|exact (fun H => H) | exact (fun H => H)].
  intros [[E _]|K]; [left; exact E | right; exact K].
Qed.

Theorem partial_equivalence_strict2 dbg hp hpo hd shp shs input base sbase :
  usv_list input -> base_rel dbg shs base sbase -> in_proved_class2 sbase input = true ->
  host_hyp hpo hd shp shs sbase input ->
  agree_strict dbg shs (parse_url dbg hp hpo hd None base input) (spec_basic_url_parse shp input sbase).
Proof.
  intros Hu Hb Hc HH. unfold in_proved_class2 in Hc.
  destruct (in_proved_class sbase input) eqn:E1.
  - apply partial_equivalence_strict; assumption.
  - cbn [orb] in Hc. destruct sbase as [sb|]; [discriminate Hc|].
    destruct base as [b|]; [cbn [base_rel] in Hb; contradiction|].
    pose proof (class_authority dbg hp hpo hd None shp shs input Hu Hc (HH eq_refl Hc)) as A.
    unfold agree_rel_strict, agree_strict in *.
    destruct (spec_basic_url_parse shp input None) as [su|u|]; [|exact A | exact A].
    destruct A as [K|(u & E & R)]; [left; exact K|]. right. exists u. split; [exact E | exact (rel_api _ _ _ _ R)].
Qed.

Theorem partial_equivalence2 dbg hp hpo hd shp shs input base sbase :
  usv_list input -> base_rel dbg shs base sbase -> in_proved_class2 sbase input = true ->
  host_hyp hpo hd shp shs sbase input ->
  agree dbg shs (parse_url dbg hp hpo hd None base input) (spec_basic_url_parse shp input sbase).
Proof. intros Hu Hb Hc HH. apply agree_strict_agree. apply partial_equivalence_strict2; assumption. Qed.
