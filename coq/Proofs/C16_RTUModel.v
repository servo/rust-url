(* Proofs/C16_RTUModel.v - C16, the round trip of BOTH serializations of the tuple origin of a parse result, for the
   parser model linked with the host model (Model/Host.v), the IDNA model at the URL deny list as Host::parse's IDNA
   step (idna_of A cfg, Proofs/C09_InstIdna.v) and the ToUnicode model as idna::domain_to_unicode (origin_tu A cfg).
   There is no premise about the host functions: the premises are the eight adapter facts of C12_5 (facts about the
   real idna_adapter that are checked by sampling against the crate, not proved) and, on the host of the origin, the
   computable exclusion of the known classes (host_known_free):
     a domain d is outside Known_C12 (F-C12-1 / F-C16-1) and Known_C10_long (F-C10-1) - that a domain RETURNED by
       Host::parse outside Known_C10_long is a fixed point of the IDNA step is proved (returned_domain_fixed, from c10_idem3);
     nothing for an IPv4 address (Proofs/C16_V4.v: the IDNA step maps dotted-decimal text to itself, for every adapter)
     and nothing for an IPv6 address.
   rt_unicode_domain_model: the Unicode serialization for a domain, NON-ASCII ToUnicode forms included (P1, P2 of
   Proofs/C16_UniDeny.v + the parser model on a non-ASCII host text, Proofs/C16_RTU.v + C12 clause a_of_u).
   rt_both_model: both serializations, every host kind.
   rt_unicode_refuted: a witness inside Known_C12 where the Unicode serialization is rejected, so rt_both_model does not
   hold with the Known_C12 exclusion left out. *)
From RU Require Import Base.Prelude Base.Utf8 Base.Utf8Facts Model.Uts46
  Proofs.Idna_Api Proofs.Idna_Known Proofs.Idna_Hyp Proofs.Idna_C10_Deny Proofs.Idna_C10_Inner Proofs.Idna_C10_Walk
  Proofs.Idna_C10b_Long Proofs.Idna_C10b_Stmt Proofs.Idna_WalkEnc Proofs.Idna_C10c_Drun Proofs.Idna_C10c_Idem Proofs.Idna_C12c_Stmt4
  Proofs.Idna_C12d_Round Proofs.Idna_C12d_Stmt5.
From RU Require Import Model.HostT Model.Host Model.UrlRecord Model.Parser Model.Origin Proofs.C09_Host Proofs.C09_InstIdna
  Proofs.ListN Proofs.C16_Origin Proofs.C16_RT Proofs.C16_RT6 Proofs.C16_RT6Model Proofs.C16_RTParsed Proofs.C16_RTU
  Proofs.C16_UniDeny Proofs.C16_V4.

(* idna::domain_to_unicode(domain).0 of origin.rs, on the UTF-8 bytes of the String *)
Definition origin_tu (A : adapter) (cfg : bool) (d : list N) : list N :=
  utf8_encode (ui_text (domain_to_unicode A cfg (str_chars d))).

(* the host of an origin is outside the known classes *)
Definition host_known_free (A : adapter) (cfg : bool) (h : host) : Prop :=
  match h with
  | HDomain d => Known_C12 A cfg d DENY_URL HAllow = false /\ Known_C10_long d = false
  | _ => True
  end.

Lemma url_free_sweep : all_below 128 (fun c => deny_member DENY_URL c || (freec c && plainc c)) = true.
Proof. vm_compute. reflexivity. Qed.
Lemma okc_freec c : okc DENY_URL c -> freec c = true.
Proof.
  intros H. destruct (N.ltb_spec c 128) as [L|L].
  - pose proof (all_below_spec 128 _ url_free_sweep c L) as S. cbv beta in S. rewrite (H L) in S. cbn [orb] in S.
    apply andb_true_iff in S. exact (proj1 S).
  - unfold freec. cbn [memb]. lia.
Qed.
Lemma clean_plainc c : c < 128 -> deny_member DENY_URL c = false -> plainc c = true.
Proof.
  intros L H. pose proof (all_below_spec 128 _ url_free_sweep c L) as S. cbv beta in S. rewrite H in S. cbn [orb] in S.
  apply andb_true_iff in S. exact (proj2 S).
Qed.

Section Model.
Variable A : adapter.
Variable cfg : bool.
Hypothesis HOK : AdapterOK A.
Hypothesis HUSV : AdapterUSV A.
Hypothesis HNT : NvNoTrunc A.
Hypothesis HNI : NvIdem A.
Hypothesis HNM : AsciiNoMark A.
Hypothesis HMP : MapPrefix A.
Hypothesis HMF : NvMapFix A.
Hypothesis HNG : NvNoGrow A.

Notation hp := (host_parse (idna_of A cfg)).
Notation hd := host_display.

Lemma fixed_domain_facts d : idna_of A cfg d = Some d ->
  exists b, to_ascii A cfg d DENY_URL HAllow DIgnore = U32_c13.Ok (b, d) /\ bytes d
            /\ Forall (fun c => c < 128 /\ deny_member DENY_URL c = false) d.
Proof.
  intros H. unfold idna_of in H. destruct (forallb is_byteb d) eqn:Eb; [|discriminate]. unfold domain_to_ascii_cow in H.
  destruct (to_ascii A cfg d DENY_URL HAllow DIgnore) as [[b r]| |] eqn:E; try discriminate. inversion H; subst r.
  exists b. split; [reflexivity|]. split; [exact (forallb_bytes d Eb)|].
  pose proof (c10_ascii_under_notrunc A cfg HNT d DENY_URL HAllow DIgnore b d (forallb_bytes d Eb) valid_deny_url E) as F.
  eapply Forall_impl; [|exact F]. intros c (L & _ & D). split; assumption.
Qed.

Lemma clean_plain_text d : d <> [] -> Forall (fun c => c < 128 /\ deny_member DENY_URL c = false) d -> plain_text d.
Proof.
  intros Hne H. split; [exact Hne|]. apply forallb_forall. intros c Hc. rewrite Forall_forall in H.
  destruct (H c Hc) as [L D]. exact (clean_plainc c L D).
Qed.

(* Host::parse reads such a domain back as itself (C09_display_rt, pointwise) *)
Lemma fixed_domain_rt d : idna_of A cfg d = Some d -> d <> [] -> ends_in_a_number d = false ->
  hp d = HostT.Ok (HDomain d).
Proof.
  intros H Hne Hnum. destruct (fixed_domain_facts d H) as (b & _ & _ & Hcl).
  assert (Ha : ascii d) by (eapply Forall_impl; [|exact Hcl]; intros c [L _]; exact L).
  destruct url_denies_pct_bracket as [D37 D91].
  assert (H37 : ~ In 37 d).
  { intros Hin. rewrite Forall_forall in Hcl. destruct (Hcl 37 Hin) as [_ D]. rewrite D37 in D. discriminate. }
  assert (Hs : Host.starts_with 91 d = false).
  { destruct d as [|x r]; [reflexivity|]. unfold Host.starts_with. destruct (x =? 91) eqn:E; [|reflexivity].
    apply N.eqb_eq in E. subst x. inversion Hcl as [|? ? [_ D] _]; subst. rewrite D91 in D. discriminate. }
  apply x_ok_host_parse. unfold host_parse_x. rewrite Hs, (C09_Host.utf8_encode_ascii d Ha), (decode_no_pct d H37), H.
  destruct d as [|x r]; [contradiction Hne; reflexivity|]. rewrite Hnum. reflexivity.
Qed.

(* a domain that Host::parse RETURNED is a fixed point of the IDNA step outside Known_C10_long (C10: idempotence of
   ToASCII, c10_idem3, six adapter facts) *)
Lemma returned_domain_fixed t d : hp t = HostT.Ok (HDomain d) -> Known_C10_long d = false -> idna_of A cfg d = Some d.
Proof.
  intros Hhp Hlong. destruct (parse_domain (idna_of A cfg) t d (host_parse_ok_x _ _ _ Hhp)) as (Hi & _ & _).
  set (bs := PercentEncoding.decode (utf8_encode t)) in *.
  unfold idna_of in Hi. destruct (forallb is_byteb bs) eqn:Eb; [|discriminate]. unfold domain_to_ascii_cow in Hi.
  destruct (to_ascii A cfg bs DENY_URL HAllow DIgnore) as [[b r]| |] eqn:E; try discriminate. inversion Hi; subst r.
  pose proof (c10_idem3 A cfg HOK HUSV HNT HNI HNM HMP bs DENY_URL HAllow DIgnore b d (forallb_bytes bs Eb) valid_deny_url E Hlong) as Hid.
  pose proof (c10_ascii_under_notrunc A cfg HNT bs DENY_URL HAllow DIgnore b d (forallb_bytes bs Eb) valid_deny_url E) as F.
  assert (Ed : forallb is_byteb d = true).
  { apply forallb_forall. intros c Hc. rewrite Forall_forall in F. destruct (F c Hc) as [L _]. unfold is_byteb. lia. }
  unfold idna_of. rewrite Ed. unfold domain_to_ascii_cow. rewrite Hid. reflexivity.
Qed.

Lemma origin_text d b : Forall (fun c => c < 128) d -> to_ascii A cfg d DENY_URL HAllow DIgnore = U32_c13.Ok (b, d) ->
  origin_tu A cfg d = utf8_encode (ui_text (domain_to_unicode A cfg d))
  /\ ui_text (domain_to_unicode A cfg d) = ui_text (to_unicode A cfg d DENY_URL HAllow).
Proof.
  intros Ha H. split.
  - unfold origin_tu, str_chars. rewrite (utf8_lossy_ascii d Ha). reflexivity.
  - unfold domain_to_unicode. rewrite (C09_Host.utf8_encode_ascii d Ha), (p1_empty_url A cfg d b d H). reflexivity.
Qed.

Lemma hp_nil : hp [] <> HostT.Ok (HDomain []) /\ forall d, d <> [] -> hp [] <> HostT.Ok (HDomain d).
Proof.
  assert (E : host_parse_x (idna_of A cfg) [] = XErr EmptyHost).
  { unfold host_parse_x. cbn [Host.starts_with]. change (utf8_encode []) with (@nil N). rewrite (decode_no_pct [] (fun x => x)).
    unfold idna_of. cbn [forallb]. unfold domain_to_ascii_cow. rewrite (to_ascii_fast A cfg [] DENY_URL HAllow eq_refl). reflexivity. }
  unfold host_parse. rewrite E. cbn [xr_result]. split; [discriminate|intros d _; discriminate].
Qed.

(* the Unicode serialization of (s, Domain d, p) parses to a URL with that origin *)
Theorem rt_unicode_domain dbg ho s d p :
  In s five_schemes -> p <= 65535 ->
  idna_of A cfg d = Some d -> Known_C12 A cfg d DENY_URL HAllow = false -> Known_C10_long d = false ->
  d <> [] -> ends_in_a_number d = false ->
  nlen (ascii_serialization hd (Tuple s (HDomain d) p)) < U32_MAX_P ->
  exists w, url_parse dbg hp ho hd (unicode_serialization hd (origin_tu A cfg) (Tuple s (HDomain d) p)) = POk w
            /\ forall f k, url_origin_fuel dbg hp ho hd f k w = OOk (Tuple s (HDomain d) p) k.
Proof.
  intros H5 Hp Hfix HK Hlong Hne Hnum HB.
  destruct (fixed_domain_facts d Hfix) as (b & H & Hb & Hcl).
  assert (Ha : Forall (fun c => c < 128) d) by (eapply Forall_impl; [|exact Hcl]; intros c [L _]; exact L).
  destruct (origin_text d b Ha H) as [Etu Et].
  destruct (uni_host_rt_full A cfg HOK HUSV HNT HNI HNM HMP HMF HNG d b Ha H HK Hlong Hne Hnum) as [Hback Husv].
  pose proof (unicode_form_okc A cfg DENY_URL HAllow valid_deny_url HOK HUSV HNT HNI HNM HMP d b d Hb H) as Hokc.
  rewrite <- Et in Hokc.
  cbn [unicode_serialization host_fmt]. rewrite Etu.
  set (T := ui_text (domain_to_unicode A cfg d)) in *.
  assert (Hfree : forallb freec T = true).
  { apply forallb_forall. intros c Hc. rewrite Forall_forall in Hokc. exact (okc_freec c (Hokc c Hc)). }
  destruct T as [|c t] eqn:ET.
  { exfalso. exact (proj2 hp_nil d Hne Hback). }
  assert (Hc : freec c = true) by (cbn [forallb] in Hfree; apply andb_true_iff in Hfree; tauto).
  apply freec_facts in Hc.
  pose proof (clean_plain_text d Hne Hcl) as [_ Hpl].
  apply (rt_text_u dbg hp ho hd s c t (HDomain d) p H5 Hp (scannable_u_free _ Hfree) Husv); cbn [host_fmt host_display]; try tauto.
  destruct d as [|y d']; [congruence|]. apply (ends_with_not 47 [] (y :: d')); [discriminate|]. now apply plain_no_slash.
Qed.

Theorem rt_unicode_domain_model dbg ho input u c s d p c' :
  url_parse dbg hp ho hd input = POk u -> url_origin dbg hp ho hd c u = OOk (Tuple s (HDomain d) p) c' ->
  Known_C12 A cfg d DENY_URL HAllow = false -> Known_C10_long d = false ->
  nlen (ascii_serialization hd (Tuple s (HDomain d) p)) < U32_MAX_P ->
  exists w, url_parse dbg hp ho hd (unicode_serialization hd (origin_tu A cfg) (Tuple s (HDomain d) p)) = POk w
            /\ url_origin dbg hp ho hd c' w = OOk (Tuple s (HDomain d) p) c'.
Proof.
  intros Hu Ho HK Hlong HB.
  destruct (tuple_origin_facts dbg hp ho hd (fun x => eq_refl) _ c u s (HDomain d) p c'
              (url_parse_good dbg hp ho hd (fun x => eq_refl) input u Hu) Ho) as (H5 & Hp & (t & Hhp) & _).
  destruct (parse_domain (idna_of A cfg) t d (host_parse_ok_x _ _ _ Hhp)) as (_ & Hne & Hnum).
  pose proof (returned_domain_fixed t d Hhp Hlong) as Hfix.
  destruct (rt_unicode_domain dbg ho s d p H5 Hp Hfix HK Hlong Hne Hnum HB) as (w & Hw & Hw2).
  exists w. split; [exact Hw|apply Hw2].
Qed.

Theorem rt_both_model dbg ho input u c o c' :
  url_parse dbg hp ho hd input = POk u -> url_origin dbg hp ho hd c u = OOk o c' -> is_tuple o = true ->
  (forall s h p, o = Tuple s h p -> host_known_free A cfg h) ->
  nlen (ascii_serialization hd o) < U32_MAX_P ->
  (exists w, url_parse dbg hp ho hd (ascii_serialization hd o) = POk w /\ url_origin dbg hp ho hd c' w = OOk o c')
  /\ (exists w, url_parse dbg hp ho hd (unicode_serialization hd (origin_tu A cfg) o) = POk w
                /\ url_origin dbg hp ho hd c' w = OOk o c').
Proof.
  intros Hu Ho Ht HK HB. destruct o as [i|s h p]; [discriminate|]. specialize (HK s h p eq_refl).
  destruct (tuple_origin_facts dbg hp ho hd (fun x => eq_refl) _ c u s h p c'
              (url_parse_good dbg hp ho hd (fun x => eq_refl) input u Hu) Ho) as (H5 & Hp & (t & Hhp) & _).
  pose proof (host_parse_ok_x _ _ _ Hhp) as Hx.
  destruct h as [d|a|ps]; cbn [host_known_free] in HK.
  - destruct HK as (HK12 & Hlong). pose proof (returned_domain_fixed t d Hhp Hlong) as Hfix.
    destruct (parse_domain (idna_of A cfg) t d Hx) as (_ & Hne & Hnum).
    destruct (fixed_domain_facts d Hfix) as (b & _ & _ & Hcl).
    split.
    + destruct (proj1 (rt_plain dbg hp ho hd (fun x => x) s (HDomain d) p H5 Hp (clean_plain_text d Hne Hcl) eq_refl
                         (fixed_domain_rt d Hfix Hne Hnum) HB)) as (w & Hw & Hw2).
      exists w. split; [exact Hw|apply Hw2].
    + destruct (rt_unicode_domain dbg ho s d p H5 Hp Hfix HK12 Hlong Hne Hnum HB) as (w & Hw & Hw2).
      exists w. split; [exact Hw|apply Hw2].
  - pose proof (returned_ip_wf _ t _ Hx) as Ha. cbv beta iota in Ha.
    destruct (ipv4_display_digits a Ha) as (Hd & Hn & _).
    assert (Hpl : plain_text (host_fmt hd (HIpv4 a))).
    { split; [exact Hn|]. apply forallb_forall. intros x Hxin. rewrite Forall_forall in Hd. apply digit_dot_plain. now apply Hd. }
    destruct (proj1 (rt_plain dbg hp ho hd (fun x => x) s (HIpv4 a) p H5 Hp Hpl eq_refl (ipv4_display_rt_model A cfg a Ha) HB)) as (w & Hw & Hw2).
    rewrite (unicode_is_ascii hd (origin_tu A cfg) s (HIpv4 a) p) by (intros x; discriminate).
    split; exists w; (split; [exact Hw|apply Hw2]).
  - pose proof (returned_ip_wf _ t _ Hx) as Hw8. cbv beta iota in Hw8.
    destruct Hw8 as [Hl8 Hf8].
    destruct (rt_ipv6_model dbg (idna_of A cfg) ho (origin_tu A cfg) s ps p H5 Hp Hl8 Hf8) as [(w & Hw & Hw2) (w' & Hw' & Hw2')].
    split; [exists w; split; [exact Hw|apply Hw2]|exists w'; split; [exact Hw'|apply Hw2']].
Qed.
End Model.

(* non-vacuity, the whole chain executed inside Coq:
   HTTPS://A.B<u-umlaut>cher:443/x (parser model, host model, IDNA model with the adapter lowsan4) has the tuple origin
   (https, a.xn--bcher-kva, 443); the domain is outside the known classes; origin.rs displays it as a.b<u-umlaut>cher, so
   the Unicode serialization is the NON-ASCII text https://a.b<u-umlaut>cher, which parses to a URL with the same origin *)
From RU Require Import Proofs.Idna_C12c_Stmt4.
Definition t_HTTPS_A_Bucher_443_x : list N :=
  [72; 84; 84; 80; 83; 58; 47; 47; 65; 46; 66; 195; 188; 99; 104; 101; 114; 58; 52; 52; 51; 47; 120].
Definition t_https_a_bucher : list N := [104; 116; 116; 112; 115; 58; 47; 47; 97; 46; 98; 195; 188; 99; 104; 101; 114].
Definition t_https_a_xn_bcher : list N :=
  [104; 116; 116; 112; 115; 58; 47; 47; 97; 46; 120; 110; 45; 45; 98; 99; 104; 101; 114; 45; 107; 118; 97].
Definition ex_origin_of (t : list N) : option ores :=
  match url_parse true (host_parse (idna_of lowsan4 true)) host_parse_opaque host_display t with
  | POk u => Some (url_origin true (host_parse (idna_of lowsan4 true)) host_parse_opaque host_display 0 u)
  | _ => None
  end.
Example rt_unicode_example :
  let o := Tuple s_https (HDomain W_stmt5_A) 443 in
  ex_origin_of t_HTTPS_A_Bucher_443_x = Some (OOk o 0)
  /\ (idna_of lowsan4 true W_stmt5_A = Some W_stmt5_A /\ Known_C12 lowsan4 true W_stmt5_A DENY_URL HAllow = false
      /\ Known_C10_long W_stmt5_A = false)
  /\ ascii_serialization host_display o = t_https_a_xn_bcher
  /\ unicode_serialization host_display (origin_tu lowsan4 true) o = t_https_a_bucher
  /\ ex_origin_of t_https_a_xn_bcher = Some (OOk o 0)
  /\ ex_origin_of t_https_a_bucher = Some (OOk o 0).
Proof. vm_compute. repeat split; reflexivity. Qed.

(* rt_both_model needs its exclusion of Known_C12 (F-C12-1 at the level of origins = F-C16-1).  rt_unicode_refuted_stmt
   is not a negation: it EXHIBITS A WITNESS - an adapter with the eight premises and an input whose origin has a domain
   with Known_C12 = true (a fixed point of the IDNA step, outside Known_C10_long, the ASCII serialization round-trips),
   where the parser rejects the Unicode serialization.  The witness:
   https://xn--xn--ss-ztda/ parses (parser + host + IDNA model, adapter lowsan4, which satisfies the eight premises) to a
   URL with the tuple origin (https, xn--xn--ss-ztda, 443); the domain IS a fixed point of the IDNA step and is outside
   Known_C10_long, the ASCII serialization round-trips; but the domain is in Known_C12: origin.rs displays it as
   xn--<U+02EF><U+02EF>ss, the Unicode serialization is https://xn--<U+02EF><U+02EF>ss, and Url::parse rejects that text
   (IdnaError: a label that begins with xn-- and is not ASCII).  The real crates do the same (replayed: the `known`
   mode of harness/src/bin/c16.rs). *)
Definition t_https_xn_xn : list N := [104; 116; 116; 112; 115; 58; 47; 47] ++ W_C12_1 ++ [47].
Definition t_https_xn_u : list N := [104; 116; 116; 112; 115; 58; 47; 47; 120; 110; 45; 45; 203; 175; 203; 175; 115; 115].
Definition rt_unicode_refuted_stmt : Prop :=
  exists A,
    (AdapterOK A /\ AdapterUSV A /\ NvNoTrunc A /\ NvIdem A /\ AsciiNoMark A /\ MapPrefix A /\ NvMapFix A /\ NvNoGrow A)
    /\ exists input u s d p,
         url_parse true (host_parse (idna_of A true)) host_parse_opaque host_display input = POk u
         /\ url_origin true (host_parse (idna_of A true)) host_parse_opaque host_display 0 u = OOk (Tuple s (HDomain d) p) 0
         /\ idna_of A true d = Some d /\ Known_C10_long d = false /\ Known_C12 A true d DENY_URL HAllow = true
         /\ (exists w, url_parse true (host_parse (idna_of A true)) host_parse_opaque host_display
                         (ascii_serialization host_display (Tuple s (HDomain d) p)) = POk w
                       /\ url_origin true (host_parse (idna_of A true)) host_parse_opaque host_display 0 w
                          = OOk (Tuple s (HDomain d) p) 0)
         /\ unicode_serialization host_display (origin_tu A true) (Tuple s (HDomain d) p) = t_https_xn_u
         /\ url_parse true (host_parse (idna_of A true)) host_parse_opaque host_display t_https_xn_u = PErr IdnaError.
(* xn_url, xn_w: the two parse results, computed once.  The branch `| _ => dummy_url` is not taken: the vm_compute steps
   of rt_unicode_refuted check that url_parse returns POk xn_url resp. POk xn_w *)
Definition dummy_url : url := mkUrl [] 0 0 0 0 HI_None None 0 None None.
Definition xn_url : url := Eval vm_compute in
  match url_parse true (host_parse (idna_of lowsan4 true)) host_parse_opaque host_display t_https_xn_xn with
  | POk u => u | _ => dummy_url end.
Definition xn_w : url := Eval vm_compute in
  match url_parse true (host_parse (idna_of lowsan4 true)) host_parse_opaque host_display
          (ascii_serialization host_display (Tuple s_https (HDomain W_C12_1) 443)) with
  | POk u => u | _ => dummy_url end.
Lemma rt_unicode_refuted : rt_unicode_refuted_stmt.
Proof.
  exists lowsan4. split; [exact lowsan4_premises5|].
  exists t_https_xn_xn, xn_url, s_https, W_C12_1, 443.
  split; [vm_compute; reflexivity|]. split; [vm_compute; reflexivity|]. split; [vm_compute; reflexivity|].
  split; [vm_compute; reflexivity|]. split; [vm_compute; reflexivity|].
  split; [exists xn_w; split; vm_compute; reflexivity|]. split; vm_compute; reflexivity.
Qed.
