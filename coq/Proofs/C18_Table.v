(* Proofs/C18_Table.v - facts about the regenerated BASE64_DECODE_TABLE and byte classes. *)
From RU Require Import Base.Prelude Gen.Tables Model.Base64 Spec.Infra.

Lemma index_from_in i c l v : index_from i c l = Some v -> In c l.
Proof.
  revert i. induction l as [|x r IH]; intros i H; cbn [index_from] in H; [discriminate|].
  destruct (c =? x) eqn:Ecx.
  - left. apply N.eqb_eq in Ecx. congruence.
  - right. exact (IH _ H).
Qed.

Lemma alphabet_lt128 : forallb (fun c => c <? 128) b64_alphabet = true.
Proof. vm_compute. reflexivity. Qed.

Lemma alphabet_index_lt128 c v : alphabet_index c = Some v -> c < 128.
Proof.
  intros H. apply index_from_in in H.
  pose proof alphabet_lt128 as HA. rewrite forallb_forall in HA. specialize (HA c H). lia.
Qed.

Definition index_bound_ok (c : N) : bool :=
  match alphabet_index c with Some v => (v <? 64) && (b64_char v =? c) | None => true end.
Lemma index_bound_sweep : all_below 256 index_bound_ok = true.
Proof. vm_compute. reflexivity. Qed.

Lemma alphabet_index_lt64 c v : alphabet_index c = Some v -> v < 64.
Proof.
  intros H. pose proof (alphabet_index_lt128 c v H) as Hc.
  pose proof (all_below_spec 256 _ index_bound_sweep c ltac:(lia)) as HS.
  unfold index_bound_ok in HS. rewrite H in HS. lia.
Qed.

Lemma alphabet_index_char c v : alphabet_index c = Some v -> b64_char v = c.
Proof.
  intros H. pose proof (alphabet_index_lt128 c v H) as Hc.
  pose proof (all_below_spec 256 _ index_bound_sweep c ltac:(lia)) as HS.
  unfold index_bound_ok in HS. rewrite H in HS. lia.
Qed.

Definition char_index_ok (v : N) : bool :=
  match alphabet_index (b64_char v) with Some v' => v' =? v | None => false end.
Lemma char_index_sweep : all_below 64 char_index_ok = true.
Proof. vm_compute. reflexivity. Qed.

Lemma alphabet_index_of_char v : v < 64 -> alphabet_index (b64_char v) = Some v.
Proof.
  intros H. pose proof (all_below_spec 64 _ char_index_sweep v H) as HS.
  unfold char_index_ok in HS. destruct (alphabet_index (b64_char v)) as [v'|]; [|discriminate].
  f_equal. lia.
Qed.

(* closed form: A-Z a-z 0-9 + / *)
Definition alphabet_closed_form (c : N) : option N :=
  if is_upper c then Some (c - 65)
  else if is_lower c then Some (c - 71)
  else if is_digit c then Some (c + 4)
  else if c =? 43 then Some 62
  else if c =? 47 then Some 63
  else None.
Definition closed_form_ok (c : N) : bool :=
  match alphabet_index c, alphabet_closed_form c with
  | Some a, Some b => a =? b
  | None, None => true
  | _, _ => false
  end.
Lemma closed_form_sweep : all_below 256 closed_form_ok = true.
Proof. vm_compute. reflexivity. Qed.

Lemma alphabet_index_closed_form c : alphabet_index c = alphabet_closed_form c.
Proof.
  destruct (c <? 256) eqn:Hc.
  - pose proof (all_below_spec 256 _ closed_form_sweep c ltac:(lia)) as HS.
    unfold closed_form_ok in HS.
    destruct (alphabet_index c) as [a|], (alphabet_closed_form c) as [b|]; try discriminate; try reflexivity.
    f_equal. lia.
  - destruct (alphabet_index c) as [a|] eqn:Ha.
    + apply alphabet_index_lt128 in Ha. lia.
    + unfold alphabet_closed_form, is_upper, is_lower, is_digit.
      replace ((65 <=? c) && (c <=? 90)) with false by lia.
      replace ((97 <=? c) && (c <=? 122)) with false by lia.
      replace ((48 <=? c) && (c <=? 57)) with false by lia.
      replace (c =? 43) with false by lia. replace (c =? 47) with false by lia. reflexivity.
Qed.

Definition table_entry_ok (b : N) : bool :=
  Z.eqb (b64_value b) (match alphabet_index b with Some v => Z.of_N v | None => (-1)%Z end).
Lemma table_sweep : all_below 256 table_entry_ok = true.
Proof. vm_compute. reflexivity. Qed.

Lemma table_length : length T_B64_TABLE = 256%nat.
Proof. vm_compute. reflexivity. Qed.

Lemma b64_value_spec b :
  b64_value b = match alphabet_index b with Some v => Z.of_N v | None => (-1)%Z end.
Proof.
  destruct (b <? 256) eqn:Hb.
  - pose proof (all_below_spec 256 _ table_sweep b ltac:(lia)) as HS.
    unfold table_entry_ok in HS. apply Z.eqb_eq in HS. exact HS.
  - unfold b64_value. rewrite nth_overflow by (rewrite table_length; lia).
    destruct (alphabet_index b) as [v|] eqn:Hv; [|reflexivity].
    apply alphabet_index_lt128 in Hv. lia.
Qed.

Lemma ws_list_is_infra b : memb b T_B64_WS = is_ascii_whitespace b.
Proof. unfold T_B64_WS, is_ascii_whitespace. cbn [memb]. lia. Qed.

Lemma pad_is_equals : T_B64_PAD = 61.
Proof. reflexivity. Qed.

Lemma ws_not_alphabet b : is_ascii_whitespace b = true -> alphabet_index b = None.
Proof.
  unfold is_ascii_whitespace. intros H.
  assert (Hc : b = 9 \/ b = 10 \/ b = 12 \/ b = 13 \/ b = 32) by lia.
  destruct Hc as [->|[->|[->|[->| ->]]]]; vm_compute; reflexivity.
Qed.

Lemma equals_not_alphabet : alphabet_index 61 = None.
Proof. vm_compute. reflexivity. Qed.

Lemma equals_not_ws : is_ascii_whitespace 61 = false.
Proof. vm_compute. reflexivity. Qed.

Lemma body_special_list b :
  memb b T_BODY_SPECIAL = (b =? 37) || (b =? 35) || (b =? 9) || (b =? 10) || (b =? 13).
Proof. unfold T_BODY_SPECIAL. cbn [memb]. lia. Qed.
