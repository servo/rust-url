(* Proofs/C05_ReachF.v - the largest gated reachability relation of C05, CReachF, and its invariant.
   CReachF dbg hp hpo hd : parse; parse against ANY reached record (no premise on the base); a step_gate3 step of any
   of the 19 mutators; a Url::query_pairs_mut session with &str arguments.
   Invariant (creachF_inv): CInv (C06's wfh + the five component clauses)
                            /\ AS (a special scheme is followed by "://" - hence base_ok, the join premise of CReach / CReach3)
                            /\ every byte inside 0x20..0x7E
                            /\ the stored host text has no space.
   Consequences: the component clauses, base_ok, alphabet_ok and `sharp` (C05_history_sharp_statement) for EVERY record
   of CReachF, with hypotheses on the host functions only. *)
From RU Require Import Base.Prelude Base.Utf8 Base.Utf8Facts Model.AsciiSet Gen.Tables Model.PercentEncoding
  Model.HostT Model.UrlRecord Model.Parser Model.Setters Model.WF Model.FormUrlencoded Model.QueryPairs
  Proofs.ListN Proofs.C03_WF Proofs.C05_Enc Proofs.C05_Parser Proofs.C05_Setters Proofs.C05_History Proofs.C05_Sharp
  Proofs.C05_Comp Proofs.C05_CompSteps Proofs.C05_CompHist
  Proofs.C06_List Proofs.C06_WFI Proofs.C06_Tail Proofs.C06_Steps Proofs.C06_Suffix Proofs.C06_FragQuery Proofs.C06_Host Proofs.C06_Main
  Proofs.C04_ParseTotal Proofs.C03_ReachParts Proofs.C05_ParseAll Proofs.C05_CompSteps2 Proofs.C05_CompReach Proofs.C05_BaseOk
  Proofs.C05_CompSteps3 Proofs.C05_Alphabet Proofs.C05_AuthOfs Proofs.C05_AuthParse Proofs.C05_HostText Proofs.C15_Ser Proofs.C05_Qpm.

Lemma firstn_S_snoc (l : list N) : forall n x, nth_error l n = Some x -> firstn (S n) l = firstn n l ++ [x].
Proof.
  induction l as [|a l IH]; intros n x H; [destruct n; discriminate|].
  destruct n as [|n]; cbn in H |- *; [inversion H; reflexivity|]. f_equal. exact (IH n x H).
Qed.

Lemma nfirstn_succ_snoc l n x : nnth l n = Some x -> nfirstn (n + 1) l = nfirstn n l ++ [x].
Proof.
  intros H. unfold nfirstn, nnth in *. replace (N.to_nat (n + 1)) with (S (N.to_nat n)) by lia.
  exact (firstn_S_snoc l _ x H).
Qed.

(* "scheme:" lies inside 0x21..0x7E *)
Lemma scheme_colon_ok u : wf_b u = true -> Forall ok_or_space (ser u) -> Forall ok_byte (nfirstn (scheme_end u + 1) (ser u)).
Proof.
  intros W Hoks. destruct (wf_scheme_facts u W) as (_ & Hc & _). apply byte_eqb_nnth in Hc.
  rewrite (nfirstn_succ_snoc _ _ _ Hc). apply Forall_app. split; [|repeat constructor; unfold ok_byte; lia].
  apply nosp_ok; [unfold nfirstn; apply Forall_firstn; exact Hoks|].
  pose proof (scheme_nosp u W) as Hn. unfold piece in Hn. rewrite N.sub_0_r in Hn. exact Hn.
Qed.

Section ReachF.
Variable dbg : bool.
Variable hp hpo : list N -> result host.
Variable hd : host -> list N.

Inductive CReachF : url -> Prop :=
| CRF_parse ovr input u : parse_url dbg hp hpo hd ovr None input = POk u -> CReachF u
| CRF_join ovr b input u : CReachF b -> parse_url dbg hp hpo hd ovr (Some b) input = POk u -> CReachF u
| CRF_step u o u' : CReachF u -> step_gate3 hp hpo hd u o u' -> apply_op dbg hp hpo hd u o = Some u' -> CReachF u'
| CRF_qpm u ops u' : CReachF u -> Forall op_ok ops -> query_pairs_session dbg u ops = Some u' -> CReachF u'.

(* the unrestricted quantifier with query_pairs_mut: C05's Reachable plus sessions with arbitrary operations *)
Inductive ReachableQ : url -> Prop :=
| RQ_parse ovr input u : parse_url dbg hp hpo hd ovr None input = POk u -> ReachableQ u
| RQ_join ovr b input u : ReachableQ b -> parse_url dbg hp hpo hd ovr (Some b) input = POk u -> ReachableQ u
| RQ_step u o u' : ReachableQ u -> op_valid o -> apply_op dbg hp hpo hd u o = Some u' -> ReachableQ u'
| RQ_qpm u ops u' : ReachableQ u -> query_pairs_session dbg u ops = Some u' -> ReachableQ u'.

Theorem reachable_Q u : Reachable dbg hp hpo hd u -> ReachableQ u.
Proof.
  induction 1 as [ovr input u Hp | ovr b input u Rb IHb Hp | u o u' R IH Hv H].
  - exact (RQ_parse ovr input u Hp).
  - exact (RQ_join ovr b input u IHb Hp).
  - exact (RQ_step u o u' IH Hv H).
Qed.

Theorem creachF_Q u : CReachF u -> ReachableQ u.
Proof.
  induction 1 as [ovr input u Hp | ovr b input u Rb IHb Hp | u o u' R IH G H | u ops u' R IH Hops H].
  - exact (RQ_parse ovr input u Hp).
  - exact (RQ_join ovr b input u IHb Hp).
  - exact (RQ_step u o u' IH (step_gate3_valid hp hpo hd u o u' G) H).
  - exact (RQ_qpm u ops u' IH H).
Qed.

Theorem creach3_F u : CReach3 dbg hp hpo hd u -> CReachF u.
Proof.
  induction 1 as [ovr input u Hp | ovr b input u Rb IHb Hb Hp | u o u' R IH G H].
  - exact (CRF_parse ovr input u Hp).
  - exact (CRF_join ovr b input u IHb Hp).
  - exact (CRF_step u o u' IH G H).
Qed.

Hypothesis HW : HostWf hp hpo hd.
Hypothesis HOK : HostOK hp hpo hd.
Hypothesis HI : IpDisp hd.
Hypothesis HV : IpOKv hd.

Definition nosp (s : list N) : Prop := ~ In 32 s.

Definition FInv (u : url) : Prop :=
  CInv dbg u /\ AS u /\ Forall ok_or_space (ser u) /\ HTx nosp u.

Lemma finv_base u : FInv u ->
  CInv dbg u /\ base_ok u = true /\ Forall ok_or_space (ser u) /\ bk u /\ HTx (fun s => ~ In 32 s) u.
Proof.
  intros (K & A & O & Hh). pose proof K as [[W _] _].
  split; [exact K|]. split; [exact (as_base_ok u W A)|]. split; [exact O|]. split; [exact (as_bk u W A) | exact Hh].
Qed.

Lemma finv_parse ovr base input u : match base with Some b => FInv b | None => True end ->
  parse_url dbg hp hpo hd ovr base input = POk u -> FInv u.
Proof.
  intros Hb Hp.
  assert (CInv dbg u) as K.
  { apply (parse_url_cinv dbg dbg hp hpo hd ovr base input u HW); [|exact Hp].
    destruct base as [b|]; [|exact I]. destruct (finv_base b Hb) as (Kb & Bb & _). split; assumption. }
  pose proof K as [[W _] _].
  split; [exact K|]. split; [|split].
  - apply (parse_url_as dbg hp hpo hd ovr base input u); [|exact Hp].
    destruct base as [b|]; [|exact I]. destruct Hb as ([[Wb _] _] & Ab & _). split; assumption.
  - apply (parse_url_okl ok_or_space ok_byte_or_space dbg hp hpo hd ovr HOK base input u (fun _ => ok_or_space_32) Hp).
    destruct base as [b|]; [|exact I]. exact (proj1 (proj2 (proj2 Hb))).
  - apply (parse_url_host_nosp dbg hp hpo hd ovr HOK dbg base input u W); [|exact Hp].
    destruct base as [b|]; [|exact I]. destruct (finv_base b Hb) as (Kb & _ & Ob & Bkb & Hhb). tauto.
Qed.

Lemma finv_step u o u' : FInv u -> step_gate3 hp hpo hd u o u' -> apply_op dbg hp hpo hd u o = Some u' -> FInv u'.
Proof.
  intros (K & A & O & Hh) G H. pose proof K as [[W _] _].
  pose proof (cinv_step3 dbg hp hpo hd HW u o u' HI K G H) as K'.
  destruct (frame_step3 dbg hp hpo hd HW u o u' HI K G H) as [Fs Fh].
  split; [exact K'|]. split; [|split].
  - intros Hs'. pose proof (Fs Hs') as Hs. specialize (A Hs).
    destruct (apply_op_ao dbg hp hpo hd u o u' H A) as [A'|(sty & Est & Hns)]; [exact A'|].
    exfalso. rewrite (u_scheme_type_spb u sty W Est) in Hns. rewrite Hs in Hns. discriminate Hns.
  - exact (apply_op_oks3 dbg hp hpo hd HOK HV u o u' G H O).
  - intros s Hs. destruct Fh as [E|[E|(h & E & _ & Ho)]].
    + rewrite E in Hs. exact (Hh s Hs).
    + rewrite E in Hs. discriminate.
    + rewrite E in Hs. inversion Hs; subst s. apply ok_nosp.
      destruct Ho as [Ho|Ho]; [exact (HV h Ho) | exact (HOK h (origin_st_origin hp hpo _ h Ho))].
Qed.

Lemma finv_qpm u ops u' : FInv u -> Forall op_ok ops -> query_pairs_session dbg u ops = Some u' -> FInv u'.
Proof.
  intros (K & A & O & Hh) Hops H. pose proof K as [[W _] _].
  destruct (qpm_inv dbg u ops u' K O Hops H) as (K' & O' & S & Es & Eh). pose proof K' as [[W' _] _].
  split; [exact K'|]. split; [|split; [exact O'|]].
  - intros Hs'. apply (sf_ao u u' S). apply A. pose proof (spb_same u u' W W' Es) as E. unfold spb in E. rewrite <- E. exact Hs'.
  - intros s Hs. rewrite Eh in Hs. exact (Hh s Hs).
Qed.

Theorem creachF_inv u : CReachF u -> FInv u.
Proof.
  induction 1 as [ovr input u Hp | ovr b input u Rb IHb Hp | u o u' R IH G H | u ops u' R IH Hops H].
  - exact (finv_parse ovr None input u I Hp).
  - exact (finv_parse ovr (Some b) input u IHb Hp).
  - exact (finv_step u o u' IH G H).
  - exact (finv_qpm u ops u' IH Hops H).
Qed.

Theorem creachF_components u : CReachF u -> wfh u /\ components_clean dbg u.
Proof.
  intros R. destruct (creachF_inv u R) as ([[W HT] C] & _). split; [split; assumption|].
  exact (comp_ok_components dbg u W C).
Qed.

(* every reached record is a possible base: the join step needs no premise *)
Theorem creachF_base_ok u : CReachF u -> base_ok u = true /\ host_text_ok u.
Proof.
  intros R. destruct (creachF_inv u R) as ([[W HT] _] & A & _). split; [exact (as_base_ok u W A) | exact HT].
Qed.

Theorem creachF_host_nosp u : CReachF u -> has_host u = true -> ~ In 32 (piece u (host_start u) (host_end u)).
Proof.
  intros R Hh. destruct (creachF_inv u R) as ([[W _] _] & _ & _ & Hx). exact (htx_piece nosp u W Hx Hh).
Qed.

(* the first sentence of the property text: only 0x21..0x7E, U+0020 solely inside an opaque path *)
Theorem creachF_alphabet u : CReachF u -> alphabet_ok u.
Proof.
  intros R. destruct (creachF_inv u R) as (K & _ & O & _).
  exact (cinv_alphabet dbg u K O (creachF_host_nosp u R)).
Qed.

Theorem creachF_sharp u : CReachF u -> sharp u.
Proof.
  intros R. destruct (creachF_inv u R) as (K & A & O & _). pose proof K as [[W _] _].
  pose proof (cannot_be_a_base_eval u W) as Ec.
  destruct (byte_eqb (ser u) (scheme_end u + 1) 47) eqn:Esl; cbn [negb] in Ec.
  - left. exact (cinv_hier_ok_byte dbg u K O (creachF_host_nosp u R) Ec).
  - right. split; [exact O|]. split; [exact (scheme_colon_ok u W O)|]. split; [exact Ec|].
    destruct (st_is_special (scheme_type_of (nfirstn (scheme_end u) (ser u)))) eqn:Es; [|reflexivity]. exfalso.
    pose proof (as_bk u W A Es) as Hs. unfold sl1 in Hs. unfold byte_eqb in Esl. rewrite Hs in Esl. discriminate.
Qed.

End ReachF.
