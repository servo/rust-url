(* Proofs/C17_Partial.v - parse_header in terms of the Standard's MIME parser (C17_Mime), DataUrl::process and
   decode_to_vec evaluated on a header / body split, and the header clauses of C17 on their own (base64 flag,
   MIME type record) for an opaque-path data: URL whose header has no '?' (C17_HeaderUrl). *)
From RU Require Import Base.Prelude Base.Utf8 Base.Utf8Facts
  Model.Parser Model.Mime Model.DataUrl Model.DataUrlTie
  Spec.MimeSniff Spec.Fetch
  Proofs.C02_Opaque
  Proofs.C17_Total Proofs.C17_Main Proofs.C17_Fragment
  Proofs.C17_Header Proofs.C17_HeaderUrl Proofs.C17_Mime.

Lemma printable_qs l : Forall printable l -> Forall qs l.
Proof.
  intros H. rewrite Forall_forall in *. intros c Hc. specialize (H c Hc). unfold printable in H.
  unfold qs, http_quoted_string_token_cp. lia.
Qed.

Lemma header_of_printable h : bytes h -> Forall printable (fst (header_of h)).
Proof.
  intros Hb. unfold header_of.
  assert (Ht : bytes (trimmed_header h)) by (apply bytes_drop_while_end, bytes_drop_while; exact Hb).
  destruct (crate_rev (rev (trimmed_header h))) as [bs|] eqn:Ec; cbn [fst].
  - apply header_string_printable. destruct (crate_rev_suffix _ _ Ec) as [p Hp].
    apply bytes_rev in Ht. rewrite Hp in Ht. apply bytes_app in Ht. apply bytes_rev. tauto.
  - apply header_string_printable. exact Ht.
Qed.

(* parse_header in terms of the Standard's MIME parser *)
Lemma parse_header_std h : bytes h ->
  parse_header h = Ok (match parse_a_mime_type (fst (header_of h)) with
                       | Some r => mime_of_record r
                       | None => fallback_mime
                       end, snd (header_of h)).
Proof.
  intros Hb. rewrite parse_header_eq. unfold from_str.
  rewrite (mime_parse_equiv _ (printable_qs _ (header_of_printable h Hb))). cbn [bind].
  destruct (parse_a_mime_type (fst (header_of h))); reflexivity.
Qed.

Lemma record_of_std o :
  record_of_mime (match o with Some r => mime_of_record r | None => fallback_mime end)
  = match o with Some r => r | None => text_plain_us_ascii end.
Proof. destruct o as [[a b c]|]; reflexivity. Qed.

Lemma remove_data_colon_skipn p : forall l, remove_data_colon p l = skipn (length p) l.
Proof.
  induction p as [|x p IH]; intros l; [destruct l; reflexivity|]. destruct l as [|y l]; [reflexivity|].
  cbn [remove_data_colon length skipn]. apply IH.
Qed.

Lemma process_and_decode_eval s A h B m b :
  pretend_parse_data_url (utf8_encode s) = Ok (Some A) ->
  find_comma_before_fragment A = Ok (Some (h, B)) ->
  parse_header h = Ok (m, b) ->
  process_and_decode s =
  match DataUrl.decode_to_vec (mk_data_url m b B) with
  | DecOk body fragment => PdOk m b (inl body) (option_map to_percent_encoded fragment)
  | DecInvalidBase64 d => PdOk m b (inr d) None
  | DecPanic => PdPanic 330
  end.
Proof.
  intros H1 H2 H3. unfold process_and_decode, process_and_decode_bytes, process_bytes.
  rewrite H1. cbn [bind]. rewrite H2. cbn [bind]. rewrite H3. cbn [bind fst snd]. reflexivity.
Qed.

Lemma url_is_data_opaque P q f : url_is_data (opaque_url s_data P q f) = true.
Proof. reflexivity. Qed.

(* the base64 flag of parse_header is step 11's condition on the serialized header *)
Theorem base64_flag_is_fetch dbg hp ho hd s rem u h B : usv_list s ->
  parse_scheme CUrlParser (input_new_trim_c0 s) = Some (s_data, rem) -> inp_split_prefix_char 47 rem = None ->
  parse_url dbg hp ho hd None None s = POk u ->
  find_comma_before_fragment (utf8_encode rem) = Ok (Some (h, B)) ->
  ~ In 63 h ->
  exists mimeType encodedBody,
    collect_until_comma (skipn 5 (url_without_fragment u)) = (mimeType, Some encodedBody)
    /\ forall m b, parse_header h = Ok (m, b) ->
       b = match ends_with_base64_marker (strip_leading_and_trailing_ascii_whitespace mimeType) with
           | Some _ => true
           | None => false
           end.
Proof.
  intros Hs Hp H47 Hu Hr Hq.
  destruct (header_is_fetch_header dbg hp ho hd s rem u h B Hs Hp H47 Hu Hr Hq) as (mt & eb & Hc & Hh).
  exists mt, eb. split; [exact Hc|]. intros m b Hph.
  assert (Hbh : bytes h).
  { destruct (parse_opaque_explicit dbg hp ho hd s s_data rem u Hs Hp scheme_type_of_data H47 Hu) as [Hur _].
    exact (proj1 (find_comma_bytes _ _ _ (utf8_encode_bytes rem Hur) Hr)). }
  rewrite (parse_header_std h Hbh) in Hph. inversion Hph as [[E1 E2]]. rewrite Hh. unfold fetch_header.
  destruct (ends_with_base64_marker (strip_leading_and_trailing_ascii_whitespace mt)); reflexivity.
Qed.

(* the MIME type record of parse_header is the one steps 6, 11-14 of the processor compute *)
Theorem mime_type_is_fetch dbg hp ho hd s rem u h B : usv_list s ->
  parse_scheme CUrlParser (input_new_trim_c0 s) = Some (s_data, rem) -> inp_split_prefix_char 47 rem = None ->
  parse_url dbg hp ho hd None None s = POk u ->
  find_comma_before_fragment (utf8_encode rem) = Ok (Some (h, B)) ->
  ~ In 63 h ->
  exists mimeType encodedBody,
    collect_until_comma (skipn 5 (url_without_fragment u)) = (mimeType, Some encodedBody)
    /\ forall m b, parse_header h = Ok (m, b) ->
       record_of_mime m = match parse_a_mime_type (fst (fetch_header mimeType)) with
                          | Some r => r
                          | None => text_plain_us_ascii
                          end.
Proof.
  intros Hs Hp H47 Hu Hr Hq.
  destruct (header_is_fetch_header dbg hp ho hd s rem u h B Hs Hp H47 Hu Hr Hq) as (mt & eb & Hc & Hh).
  exists mt, eb. split; [exact Hc|]. intros m b Hph.
  assert (Hbh : bytes h).
  { destruct (parse_opaque_explicit dbg hp ho hd s s_data rem u Hs Hp scheme_type_of_data H47 Hu) as [Hur _].
    exact (proj1 (find_comma_bytes _ _ _ (utf8_encode_bytes rem Hur) Hr)). }
  rewrite (parse_header_std h Hbh) in Hph. inversion Hph as [[E1 E2]]. rewrite record_of_std, Hh. reflexivity.
Qed.

(* C17_Main.C17_mime_statement: printable ASCII is inside the domain of mime_parse_equiv *)
Theorem mime_statement_holds : C17_mime_statement.
Proof.
  intros t Ht. rewrite (mime_parse_equiv t (printable_qs t Ht)). reflexivity.
Qed.
