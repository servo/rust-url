(* Proofs/C06_Quirks.v - Url::set_host(Some _) with the host the code parses made explicit, and the
   quirks setters that write the host / the port / the path: q_set_port, q_set_hostname, q_set_host
   (host and optional port in one call), q_set_pathname.  Frame, get-after-set and preservation of the
   invariant on a well-formed record, with the same two exclusions as set_ip_host (C06_Host.v):
   F-C02-4 (an empty host on a URL that has a port) and F-C03-5 (the "/." marker).
   Hypothesis on the host functions (host_fns_ok): every host returned by Host::parse /
   Host::parse_opaque is displayed in accordance with its kind (host_disp_ok) - it follows from
   HostWf of C03 (hence from HostRT / HostOK of C02). *)
From RU Require Import Base.Prelude Base.Utf8 Model.AsciiSet Gen.Tables Model.PercentEncoding
  Model.HostT Model.UrlRecord Model.Parser Model.Setters Model.WF
  Proofs.ListN Proofs.C03_WF Proofs.C06_List Proofs.C06_WFI Proofs.C06_Tail Proofs.C06_Steps Proofs.C06_Suffix
  Proofs.C06_Front Proofs.C06_Port Proofs.C06_Host Proofs.C06_FragQuery Proofs.C06_Main Proofs.C03_ReachParts.

Definition host_fns_ok (hp hpo : list N -> result host) (hd : host -> list N) : Prop :=
  (forall s h, hp s = Ok h -> host_disp_ok hd h)
  /\ (forall s h, hpo s = Ok h -> host_disp_ok hd h)
  /\ hd (HDomain []) = [].

Lemma hi_of_host_none h : hi_of_host h = HI_None -> h = HDomain [].
Proof. destruct h as [[|c d]|a|p]; cbn; intros H; try discriminate; reflexivity. Qed.

Lemma host_text_wf_disp hd h : h <> HDomain [] -> host_text_wf (hd h) -> host_disp_ok hd h.
Proof.
  intros Hne (H1 & H2 & H3 & _). unfold host_disp_ok.
  destruct (hi_of_host h) eqn:E; [apply hi_of_host_none in E; contradiction | ..];
    (destruct (hd h) as [|c r]; [contradiction|]; exists c, r; split; [reflexivity|];
     cbn in H2, H3; split; congruence).
Qed.

Lemma HostWf_fns_ok hp hpo hd : HostWf hp hpo hd -> host_fns_ok hp hpo hd.
Proof.
  intros (W1 & W2 & W3).
  assert (forall h, (h <> HDomain [] -> host_text_wf (hd h)) -> host_disp_ok hd h) as G.
  { intros h Hh. destruct (host_eq_dec_empty h) as [->|Hne]; [exact W3|].
    apply host_text_wf_disp; [exact Hne | apply Hh; exact Hne]. }
  split; [|split; [|exact W3]].
  - intros s h E. apply G. intros Hne. exact (W1 s h E Hne).
  - intros s h E. apply G. intros Hne. exact (W2 s h E Hne).
Qed.

(* Url::set_host(Some x): which text goes to the host parser *)
(* a bracketed argument whole; otherwise the text in front of the first ':' (None: the argument starts
   with ':', the call fails) *)
Definition set_host_arg_text (hs : list N) : option (list N) :=
  if (match hs with 91 :: _ => true | _ => false end) && ends_with_byte 93 hs then Some hs else
  match find_byte 58 hs with
  | Some 0 => None
  | Some i => Some (nfirstn i hs)
  | None => Some hs
  end.

Section HostSome.
Variable dbg : bool.
Variable hp hpo : list N -> result host.
Variable hd : host -> list N.
Hypothesis HF : host_fns_ok hp hpo hd.

Theorem set_host_some_post u x u' : wf_b u = true ->
  (has_authority_b u = false -> path_start u = scheme_end u + 1) ->
  set_host dbg hp hpo hd u (Some x) = Some (u', SOk) ->
  exists sch t h, scheme u = Some sch /\ set_host_arg_text x = Some t
    /\ (if st_is_special (scheme_type_of sch) then hp t else hpo t) = Ok h
    /\ ((has_authority_b u = true -> hi_of_host h = HI_None -> port u = None) -> host_set_post dbg hd u u' h).
Proof using HF.
  intros W X2 H. unfold set_host in H. rewrite (cannot_be_a_base_eval u W) in H. cbn [bindo] in H.
  destruct (byte_eqb (ser u) (scheme_end u + 1) 47) eqn:Hsl; cbn [negb] in H; [|discriminate].
  unfold u_scheme_type in H. rewrite (scheme_eval u W) in H. cbn [bindo] in H.
  set (sch := piece u (pidx u BeforeScheme) (pidx u AfterScheme)) in *.
  match type of H with (if ?c then _ else _) = _ => destruct c end; [discriminate|].
  fold (set_host_arg_text x) in H.
  destruct (set_host_arg_text x) as [t|] eqn:Et; [|discriminate].
  destruct (if st_is_special (scheme_type_of sch) then hp t else hpo t) as [h|e] eqn:Eh; [|discriminate].
  destruct (set_host_internal dbg hd u h None) as [u0|] eqn:E; cbn [bindo] in H; [|discriminate].
  inversion H; subst u0. exists sch, t, h. split; [apply (scheme_eval u W)|]. split; [reflexivity|]. split; [exact Eh|].
  intros X1.
  assert (host_disp_ok hd h) as Hd.
  { destruct HF as (F1 & F2 & _). destruct (st_is_special (scheme_type_of sch)); [exact (F1 t h Eh) | exact (F2 t h Eh)]. }
  apply (set_host_internal_post dbg hd u h u' W Hd X1 X2 Hsl E).
Qed.

End HostSome.

Section QPort.
Variable dbg : bool.

(* never a panic; a failure leaves the record; a success stores the port parse_port (setter context,
   default port of the scheme) returns for the argument - what the parser's port state produces - and
   everything else reads the same *)
Theorem q_set_port_ok u v : wf_b u = true -> host_text_ok u ->
  exists u' st, q_set_port dbg u v = Some (u', st)
  /\ (st <> SOk -> u' = u)
  /\ (st = SOk ->
      wf_b u' = true /\ host_text_ok u' /\ same_ids dbg u u' /\ same_back dbg u u'
      /\ exists sch rem, scheme u = Some sch
           /\ parse_port CSetter (default_port sch) (input_new_no_trim v) = POk (port u', rem)).
Proof.
  intros W HT. unfold q_set_port. destruct (chcp_eval u W) as (c & Ec & Hc). rewrite Ec. cbn [bindo].
  destruct c.
  - exists u, SErrUnit. split; [reflexivity|]. split; [reflexivity | discriminate].
  - specialize (Hc eq_refl). rewrite (scheme_eval u W). cbn [bindo].
    set (sch := piece u (pidx u BeforeScheme) (pidx u AfterScheme)).
    destruct (parse_port CSetter (default_port sch) (input_new_no_trim v)) as [[p rem]|e|] eqn:Ep.
    + pose proof (parse_port_le _ _ _ _ _ Ep) as Hp.
      destruct (set_port_internal_ok dbg u p W HT Hc Hp) as (u' & E & W' & HT' & I' & P' & B').
      rewrite E. cbn [bindo]. exists u', SOk. split; [reflexivity|]. split; [intros X; contradiction|].
      intros _. splits; try assumption. exists sch, rem. split; [reflexivity|]. rewrite P'. exact Ep.
    + exists u, SErrUnit. split; [reflexivity|]. split; [reflexivity | discriminate].
    + exfalso. unfold parse_port in Ep.
      destruct (parse_port_loop CSetter (input_new_no_trim v) 0 false) as [[[p any] rm]| |] eqn:El; cbn [pbind] in Ep.
      * destruct (negb any && ctx_eqb CSetter CSetter && negb (inp_is_empty rm)); [discriminate|]. discriminate.
      * discriminate.
      * clear Ep. revert El. generalize 0 false. generalize (input_new_no_trim v).
        induction l as [|c r IH]; intros p0 any0; cbn [parse_port_loop]; [discriminate|].
        destruct (is_tnl c); [apply IH|]. destruct (is_digit c).
        -- destruct (65535 <? p0 * 10 + (c - 48)); [discriminate | apply IH].
        -- cbn [ctx_eqb andb]. discriminate.
Qed.

End QPort.

(* set_host_internal with a new port (quirks::set_host) *)
(* = the host replaced as by set_host_internal .. None (with_host_auth / with_host_noauth of C06_Host.v),
   then the port replaced (with_port of C06_Port.v) *)
Lemma with_port_shape (X : url) A B0 C np : ser X = (A ++ B0) ++ C -> nlen A = host_end X -> nlen (A ++ B0) = path_start X ->
  with_port X np
  = mkUrl (A ++ port_text np ++ C) (scheme_end X) (username_end X) (host_start X) (host_end X) (hosti X) np
          (host_end X + nlen (port_text np))
          (option_map (shift (path_start X) (host_end X + nlen (port_text np))) (query_start X))
          (option_map (shift (path_start X) (host_end X + nlen (port_text np))) (fragment_start X)).
Proof.
  intros Es L1 L2. unfold with_port. rewrite Es. rewrite <- L2 at 1. rewrite nskipn_app_exact.
  rewrite <- app_assoc. rewrite <- L1 at 1. rewrite nfirstn_app_exact. reflexivity.
Qed.

Section HostPortEval.
Variable dbg : bool.
Variable hd : host -> list N.

Lemma set_host_internal_port_eval u h np : wf_b u = true ->
  (has_authority_b u = false -> path_start u = scheme_end u + 1 /\ byte_eqb (ser u) (scheme_end u + 1) 47 = true) ->
  set_host_internal dbg hd u h (Some np)
  = Some (with_port (if has_authority_b u then with_host_auth u (hi_of_host h) (hd h)
                     else with_host_noauth u (hi_of_host h) (hd h)) np).
Proof.
  intros W Hx2. unfold set_host_internal.
  destruct (wf_scheme_facts u W) as (Hse & Hc & Hlt).
  destruct (has_authority_b u) eqn:Ha.
  - pose proof (wf_auth_facts u W Ha) as F.
    pose proof (af_ue F); pose proof (af_hs F); pose proof (af_he F); pose proof (af_ps F); pose proof (af_len F).
    destruct (wf_tail_offsets_ge u (path_start u) W ltac:(lia)) as [Gq Gf].
    unfold u_slice_from; rewrite slice_from_o_some by lia; cbn [bindo].
    rewrite (has_authority_trunc dbg u W); cbn [bindo]; rewrite Ha; cbn [negb].
    unfold truncate. cbn [bindo].
    set (A := nfirstn (host_start u) (ser u) ++ hd h).
    assert (nlen A = host_start u + nlen (hd h)) as LA by (unfold A; rewrite nlen_app, nlen_nfirstn by lia; reflexivity).
    assert (match np with Some p => A ++ [58] ++ decimal p | None => A end = A ++ port_text np) as Es3
      by (destruct np; cbn [port_text app]; [reflexivity | rewrite app_nil_r; reflexivity]).
    rewrite Es3. rewrite adjust_ok by lia. rewrite !adjust_opt_ok by assumption. cbn [bindo].
    f_equal.
    rewrite (with_port_shape (with_host_auth u (hi_of_host h) (hd h)) A
               (nfirstn (path_start u - host_end u) (nskipn (host_end u) (ser u))) (nskipn (path_start u) (ser u)) np).
    + unfold with_host_auth. cbn [scheme_end username_end host_start host_end hosti path_start query_start fragment_start].
      rewrite <- app_assoc. rewrite nlen_app, LA.
      f_equal; try (unfold shift; lia).
      * destruct (query_start u) as [i|]; [cbn [option_map]; f_equal; unfold shift; lia | reflexivity].
      * destruct (fragment_start u) as [i|]; [cbn [option_map]; f_equal; unfold shift; lia | reflexivity].
    + unfold with_host_auth. cbn [ser]. unfold A. rewrite <- !app_assoc. do 2 f_equal.
      rewrite <- (nfirstn_nskipn (path_start u - host_end u) (nskipn (host_end u) (ser u))) at 1.
      f_equal. rewrite nskipn_nskipn. f_equal. lia.
    + unfold with_host_auth. cbn [host_end]. exact LA.
    + unfold with_host_auth. cbn [path_start]. rewrite nlen_app, LA, nlen_nfirstn by (rewrite nlen_nskipn; lia).
      unfold shift. lia.
  - pose proof (wf_noauth_facts u W Ha) as F. pose proof (nf_ue F) as Eue. pose proof (nf_hs F) as Ehs.
    pose proof (nf_he F) as Ehe. pose proof (nf_len F). pose proof (nf_port F) as Eport. destruct (Hx2 eq_refl) as [Hnm Hsl].
    destruct (wf_tail_offsets_ge u (path_start u) W ltac:(lia)) as [Gq Gf].
    unfold u_slice_from; rewrite slice_from_o_some by lia; cbn [bindo].
    rewrite (has_authority_trunc dbg u W); cbn [bindo]; rewrite Ha; cbn [negb].
    unfold truncate; rewrite Ehs, Eue.
    assert (nfirstn (scheme_end u + 1 - scheme_end u) (nskipn (scheme_end u) (nfirstn (scheme_end u + 1) (ser u))) = [58]) as E58
      by (replace (scheme_end u + 1 - scheme_end u) with 1 by lia; rewrite nskipn_nfirstn_comm;
          rewrite nfirstn_nfirstn by lia; apply (piece_one _ _ _ (byte_eqb_nnth _ _ _ Hc))).
    replace (if dbg then x <- slice_o (nfirstn (scheme_end u + 1) (ser u)) (scheme_end u) (scheme_end u + 1);;
                         assert_o (list_eqb x [58]);;; assert_o (scheme_end u + 1 =? scheme_end u + 1) else Some tt)
      with (Some tt)
      by (destruct dbg; [|reflexivity]; rewrite slice_o_some by (rewrite ?nlen_nfirstn; lia); cbn [bindo];
          rewrite E58; cbn [list_eqb]; rewrite !N.eqb_refl; reflexivity).
    cbn [bindo].
    set (A := (nfirstn (scheme_end u + 1) (ser u) ++ [47; 47]) ++ hd h).
    assert (nlen A = scheme_end u + 3 + nlen (hd h)) as LA
      by (unfold A; rewrite !nlen_app, nlen_nfirstn by lia; change (nlen [47; 47]) with 2; lia).
    assert (match np with Some p => A ++ [58] ++ decimal p | None => A end = A ++ port_text np) as Es3
      by (destruct np; cbn [port_text app]; [reflexivity | rewrite app_nil_r; reflexivity]).
    rewrite Es3. rewrite adjust_ok by lia. rewrite !adjust_opt_ok by assumption. cbn [bindo].
    f_equal.
    rewrite (with_port_shape (with_host_noauth u (hi_of_host h) (hd h)) A [] (nskipn (scheme_end u + 1) (ser u)) np).
    + unfold with_host_noauth. cbn [scheme_end username_end host_start host_end hosti path_start query_start fragment_start].
      rewrite Hnm. rewrite <- app_assoc. rewrite nlen_app, LA.
      f_equal; try (unfold shift; lia).
      * destruct (query_start u) as [i|]; [cbn [option_map]; f_equal; unfold shift; lia | reflexivity].
      * destruct (fragment_start u) as [i|]; [cbn [option_map]; f_equal; unfold shift; lia | reflexivity].
    + unfold with_host_noauth. cbn [ser]. unfold A. rewrite app_nil_r. rewrite <- !app_assoc. reflexivity.
    + unfold with_host_noauth. cbn [host_end]. exact LA.
    + unfold with_host_noauth. cbn [path_start]. rewrite app_nil_r, LA, Hnm. unfold shift. lia.
Qed.

End HostPortEval.

(* a record without a port: replacing the port by "no port" changes nothing *)
Lemma with_port_none_id X : wf_b X = true -> has_authority_b X = true -> port X = None -> with_port X None = X.
Proof.
  intros W Ha Hp. pose proof (wf_auth_facts X W Ha) as F. pose proof (af_he F); pose proof (af_ps F); pose proof (af_len F).
  destruct (wf_tail_offsets_ge X (path_start X) W ltac:(lia)) as [Gq Gf].
  pose proof W as W0. apply wf_b_iff in W0. rewrite Ha in W0. destruct W0 as (_ & ((_ & _ & _ & _ & _ & _ & _ & P) & _) & _).
  unfold port_ok in P. rewrite Hp in P.
  unfold with_port. cbn [port_text app]. rewrite nlen_nil, N.add_0_r. rewrite P. rewrite nfirstn_nskipn.
  assert (forall o, (match o with Some i => host_end X <= i | None => True end) ->
                    option_map (shift (host_end X) (host_end X)) o = o) as G.
  { intros [i|] Hi; [|reflexivity]. cbn. f_equal. unfold shift. lia. }
  rewrite P in Gq, Gf. rewrite (G _ Gq), (G _ Gf).
  transitivity (mkUrl (ser X) (scheme_end X) (username_end X) (host_start X) (host_end X) (hosti X) (port X) (path_start X)
                      (query_start X) (fragment_start X)); [|destruct X; reflexivity].
  rewrite Hp, P. reflexivity.
Qed.

Section HostPortPost.
Variable dbg : bool.
Variable hd : host -> list N.

(* what a successful set_host_internal .. (Some np) establishes *)
Definition host_port_post (u u' : url) (h : host) (np : option N) : Prop :=
  wf_b u' = true /\ host_text_ok u' /\ scheme u' = scheme u /\ username dbg u' = username dbg u
  /\ password dbg u' = password dbg u /\ port u' = np /\ same_back dbg u u'
  /\ host_str u' = Some (if hi_some (hi_of_host h) then Some (hd h) else None)
  /\ hosti u' = hi_of_host h.

Lemma set_host_internal_port_post u h np u' : wf_b u = true -> host_disp_ok hd h ->
  (match np with Some x => x <= 65535 | None => True end) ->
  (hi_of_host h = HI_None -> np = None /\ (has_authority_b u = true -> port u = None)) ->
  (has_authority_b u = false -> path_start u = scheme_end u + 1) ->
  byte_eqb (ser u) (scheme_end u + 1) 47 = true ->
  set_host_internal dbg hd u h (Some np) = Some u' -> host_port_post u u' h np.
Proof.
  intros W Hdo Hnp Hemp X2 Hsl E.
  rewrite (set_host_internal_port_eval dbg hd u h np W) in E by (intros Ha; split; [apply X2; exact Ha | exact Hsl]).
  inversion E as [E']. clear E E'.
  set (X := if has_authority_b u then with_host_auth u (hi_of_host h) (hd h) else with_host_noauth u (hi_of_host h) (hd h)).
  (* the record with the new host and the old port *)
  assert (wf_b X = true /\ host_text_ok X /\ has_authority_b X = true /\ scheme X = scheme u /\ username dbg X = username dbg u
          /\ password dbg X = password dbg u /\ same_back dbg u X
          /\ host_str X = Some (if hi_some (hi_of_host h) then Some (hd h) else None)
          /\ hosti X = hi_of_host h /\ (hi_of_host h = HI_None -> port X = None)) as (WX & HTX & HaX & SX & UX & PX & BX & HX & HiX & PoX).
  { unfold X. destruct (host_disp_ok_cases _ _ Hdo) as [(Ehi & Ed)|(Ehi & Hcr)]; destruct (has_authority_b u) eqn:Ha.
    - assert (hi_of_host h = HI_None) as En by (destruct (hi_of_host h); [reflexivity | discriminate ..]).
      assert ((hi_some (hi_of_host h) = false /\ hd h = [] /\ port u = None)
              \/ (hi_some (hi_of_host h) = true /\ exists c r, hd h = c :: r /\ c <> 58 /\ c <> 64)) as Hd
        by (left; splits; try assumption; apply (proj2 (Hemp En)); reflexivity).
      splits; [apply wha_wf | apply wha_host_text_ok | apply wha_has_authority | apply wha_scheme | apply wha_username
               | apply wha_password | apply wha_back | apply wha_host_str | reflexivity | intros _; apply (proj2 (Hemp En)); reflexivity];
        assumption.
    - pose proof (X2 eq_refl) as Hnm.
      assert ((hi_some (hi_of_host h) = false /\ hd h = [])
              \/ (hi_some (hi_of_host h) = true /\ exists c r, hd h = c :: r /\ c <> 58 /\ c <> 64)) as Hd
        by (left; split; assumption).
      splits; [apply whn_wf | apply whn_host_text_ok | apply whn_has_authority | apply whn_scheme | apply whn_username
               | apply whn_password | apply whn_back | apply whn_host_str | reflexivity | intros _; reflexivity];
        assumption.
    - assert ((hi_some (hi_of_host h) = false /\ hd h = [] /\ port u = None)
              \/ (hi_some (hi_of_host h) = true /\ exists c r, hd h = c :: r /\ c <> 58 /\ c <> 64)) as Hd
        by (right; split; assumption).
      splits; [apply wha_wf | apply wha_host_text_ok | apply wha_has_authority | apply wha_scheme | apply wha_username
               | apply wha_password | apply wha_back | apply wha_host_str | reflexivity
               | intros En; rewrite En in Ehi; discriminate];
        assumption.
    - pose proof (X2 eq_refl) as Hnm.
      assert ((hi_some (hi_of_host h) = false /\ hd h = [])
              \/ (hi_some (hi_of_host h) = true /\ exists c r, hd h = c :: r /\ c <> 58 /\ c <> 64)) as Hd
        by (right; split; assumption).
      splits; [apply whn_wf | apply whn_host_text_ok | apply whn_has_authority | apply whn_scheme | apply whn_username
               | apply whn_password | apply whn_back | apply whn_host_str | reflexivity | intros _; reflexivity];
        assumption. }
  unfold host_port_post.
  destruct (hi_some (hi_of_host h)) eqn:Ehi.
  - assert (has_host X = true) as HhX by (unfold has_host; rewrite HiX; destruct (hi_of_host h); [discriminate | reflexivity ..]).
    destruct (with_port_ok dbg X np WX HTX HhX Hnp) as (W' & HT' & (I1 & I2 & I3 & I4) & P' & (B1 & B2 & B3)).
    destruct BX as (C1 & C2 & C3).
    splits; try assumption; try congruence.
    split; [congruence|]. split; congruence.
  - assert (hi_of_host h = HI_None) as En by (destruct (hi_of_host h); [reflexivity | discriminate ..]).
    destruct (Hemp En) as [-> _]. rewrite (with_port_none_id X WX HaX (PoX En)).
    splits; try assumption. apply PoX. exact En.
Qed.

End HostPortPost.

(* the host state of the parser, as the quirks setters call it *)
Lemma parse_host_disp hp hpo hd st l h rem : host_fns_ok hp hpo hd ->
  parse_host hp hpo st l = POk (h, rem) -> host_disp_ok hd h.
Proof.
  intros (F1 & F2 & F3). unfold parse_host. destruct (st_is_file st).
  - unfold get_file_host. destruct (file_host l) as [t rm].
    destruct (hp t) as [h0|e] eqn:Ep; cbn [of_result pbind]; [|discriminate].
    intros H. inversion H; subst. destruct h0 as [d|a|p]; try exact (F1 t _ Ep).
    destruct (list_eqb d s_localhost); [exact F3 | exact (F1 t _ Ep)].
  - destruct (host_scan (st_is_special st) false [] l) as [t rm].
    destruct (scheme_type_eqb st STSpecialNotFile && match t with [] => true | _ => false end); [discriminate|].
    destruct (negb (st_is_special st)).
    + destruct (hpo t) as [h0|e] eqn:Ep; cbn [of_result pbind]; [|discriminate].
      intros H. inversion H; subst. exact (F2 t _ Ep).
    + destruct (hp t) as [h0|e] eqn:Ep; cbn [of_result pbind]; [|discriminate].
      intros H. inversion H; subst. exact (F1 t _ Ep).
Qed.

Lemma decimal_nonempty p : exists c r, decimal p = c :: r.
Proof.
  unfold decimal. destruct (decimal_rev_head 39 p) as (d & r & E & _). change (S 39) with 40%nat in E. rewrite E.
  cbn [rev]. destruct (rev r) as [|c r']; [exists d, []; reflexivity | exists c, (r' ++ [d]); reflexivity].
Qed.

Lemma q_port_empty dbg u : wf_b u = true -> q_port dbg u = Some [] -> port u = None.
Proof.
  intros W H. unfold q_port in H. rewrite (index_range_eval dbg u W BeforePort AfterPort) in H by (cbn; lia).
  inversion H as [Hp]. clear H. destruct (port u) as [p|] eqn:E; [exfalso | reflexivity].
  unfold piece in Hp. cbn [pidx] in Hp. rewrite ?E in Hp.
  assert (has_authority_b u = true) as Ha.
  { destruct (has_authority_b u) eqn:Ha; [reflexivity|]. pose proof (wf_noauth_facts u W Ha) as F.
    rewrite (nf_port F) in E. discriminate. }
  pose proof W as W0. apply wf_b_iff in W0. rewrite Ha in W0. destruct W0 as (_ & ((_ & _ & _ & _ & _ & _ & _ & P) & _) & _).
  unfold port_ok in P. rewrite E in P. destruct P as (_ & _ & _ & P4).
  destruct (decimal_nonempty p) as (c & r & Ed). rewrite Ed in P4.
  destruct (nskipn (host_end u + 1) (ser u)) as [|c0 r0]; [unfold nfirstn in P4; rewrite firstn_nil in P4; discriminate|].
  assert (1 <= host_end u + 1 + count_digits p - (host_end u + 1)) as Hn by (unfold count_digits; repeat destruct (_ <=? _); lia).
  unfold nfirstn in Hp. destruct (N.to_nat (host_end u + 1 + count_digits p - (host_end u + 1))) eqn:En; [lia|].
  cbn [firstn] in Hp. discriminate.
Qed.

Section QHost.
Variable dbg : bool.
Variable hp hpo : list N -> result host.
Variable hd : host -> list N.
Hypothesis HF : host_fns_ok hp hpo hd.

(* quirks::set_hostname: the host is the one the parser's host state returns for the argument (for a
   file URL and an empty argument: the empty host); a success is set_host_internal with that host.
   The empty host is refused by the code itself when the URL has a port, so F-C02-4 needs no premise
   here except for the file/empty-argument shortcut *)
Theorem q_set_hostname_post u v u' : wf_b u = true ->
  (has_authority_b u = false -> path_start u = scheme_end u + 1) ->
  q_set_hostname dbg hp hpo hd u v = Some (u', SOk) ->
  exists sch h, scheme u = Some sch
    /\ ((scheme_type_of sch = STFile /\ v = [] /\ h = HDomain []
         /\ ((has_authority_b u = true -> port u = None) -> host_set_post dbg hd u u' h))
        \/ ((exists rem, parse_host hp hpo (scheme_type_of sch) (input_new_no_trim v) = POk (h, rem))
            /\ host_set_post dbg hd u u' h)).
Proof using HF.
  intros W X2 H. unfold q_set_hostname in H. rewrite (cannot_be_a_base_eval u W) in H. cbn [bindo] in H.
  destruct (byte_eqb (ser u) (scheme_end u + 1) 47) eqn:Hsl; cbn [negb] in H; [|discriminate].
  rewrite (scheme_eval u W) in H. cbn [bindo] in H.
  set (sch := piece u (pidx u BeforeScheme) (pidx u AfterScheme)) in *.
  exists sch.
  destruct (scheme_type_eqb (scheme_type_of sch) STFile && match v with [] => true | _ => false end) eqn:Ef.
  - apply andb_true_iff in Ef. destruct Ef as [Ef Ev].
    destruct (set_host_internal dbg hd u (HDomain []) None) as [u0|] eqn:E; cbn [bindo] in H; [|discriminate].
    inversion H; subst u0. exists (HDomain []). split; [apply (scheme_eval u W)|]. left.
    split; [destruct (scheme_type_of sch); try discriminate; reflexivity|].
    split; [destruct v; [reflexivity | discriminate]|]. split; [reflexivity|]. intros X1.
    apply (set_host_internal_post dbg hd u (HDomain []) u' W); try assumption.
    + exact (proj2 (proj2 HF)).
    + intros Ha _. exact (X1 Ha).
  - destruct (parse_host hp hpo (scheme_type_of sch) (input_new_no_trim v)) as [[h rem]|e|] eqn:Ep; cbn [pres_ok bindo] in H;
      [|discriminate|discriminate].
    match type of H with bindo ?r _ = _ => destruct r as [[|]|] eqn:Er end; cbn [bindo] in H; try discriminate.
    destruct (set_host_internal dbg hd u h None) as [u0|] eqn:E; cbn [bindo] in H; [|discriminate].
    inversion H; subst u0. exists h. split; [apply (scheme_eval u W)|]. right. split; [exists rem; reflexivity|].
    apply (set_host_internal_post dbg hd u h u' W (parse_host_disp _ _ _ _ _ _ _ HF Ep)); try assumption.
    intros Ha Hn. apply hi_of_host_none in Hn. subst h.
    destruct (q_port dbg u) as [p|] eqn:Eq; cbn [bindo] in Er; [|discriminate].
    destruct (username dbg u) as [un|]; cbn [bindo] in Er; [|discriminate].
    destruct (q_password dbg u) as [pw|]; cbn [bindo] in Er; [|discriminate].
    inversion Er as [Hr]. destruct p as [|c r]; [apply (q_port_empty dbg u W Eq)|].
    cbn [negb] in Hr. rewrite orb_true_r in Hr. cbn [orb] in Hr. discriminate.
Qed.

End QHost.

(* quirks::set_host: host and, optionally, port *)
(* what the text behind the host says about the port: None = nothing (no ':', nothing behind it, or not a
   port: the old port stays); Some p = the parser's port state (setter context) returned p *)
Definition q_host_port (sc remaining : list N) : option (option N) :=
  match inp_split_prefix_char 58 remaining with
  | Some rem =>
      if inp_is_empty rem then None
      else match parse_port CSetter (default_port sc) rem with
           | POk (p, _) => Some p
           | _ => None
           end
  | None => None
  end.

Section QHost2.
Variable dbg : bool.
Variable hp hpo : list N -> result host.
Variable hd : host -> list N.
Hypothesis HF : host_fns_ok hp hpo hd.

Theorem q_set_host_post u v u' : wf_b u = true ->
  (has_authority_b u = false -> path_start u = scheme_end u + 1) ->
  q_set_host dbg hp hpo hd u v = Some (u', SOk) ->
  exists sch h, scheme u = Some sch
    /\ ((scheme_type_of sch = STFile /\ v = [] /\ h = HDomain []
         /\ ((has_authority_b u = true -> port u = None) -> host_set_post dbg hd u u' h))
        \/ (exists rem, parse_host hp hpo (scheme_type_of sch) (input_new_no_trim v) = POk (h, rem)
            /\ match q_host_port sch rem with
               | None => host_set_post dbg hd u u' h
               | Some np => host_port_post dbg hd u u' h np
               end)).
Proof using HF.
  intros W X2 H. unfold q_set_host in H. rewrite (cannot_be_a_base_eval u W) in H. cbn [bindo] in H.
  destruct (byte_eqb (ser u) (scheme_end u + 1) 47) eqn:Hsl; cbn [negb] in H; [|discriminate].
  rewrite (scheme_eval u W) in H. cbn [bindo] in H.
  set (sch := piece u (pidx u BeforeScheme) (pidx u AfterScheme)) in *.
  exists sch.
  destruct (scheme_type_eqb (scheme_type_of sch) STFile && match v with [] => true | _ => false end) eqn:Ef.
  - apply andb_true_iff in Ef. destruct Ef as [Ef Ev].
    destruct (set_host_internal dbg hd u (HDomain []) None) as [u0|] eqn:E; cbn [bindo] in H; [|discriminate].
    inversion H; subst u0. exists (HDomain []). split; [apply (scheme_eval u W)|]. left.
    split; [destruct (scheme_type_of sch); try discriminate; reflexivity|].
    split; [destruct v; [reflexivity | discriminate]|]. split; [reflexivity|]. intros X1.
    apply (set_host_internal_post dbg hd u (HDomain []) u' W); try assumption.
    + exact (proj2 (proj2 HF)).
    + intros Ha _. exact (X1 Ha).
  - destruct (parse_host hp hpo (scheme_type_of sch) (input_new_no_trim v)) as [[h rem]|e|] eqn:Ep; cbn [pres_ok bindo] in H;
      [|discriminate|discriminate].
    match type of H with bindo ?r _ = _ => replace r with (Some (q_host_port sch rem)) in H end.
    2:{ unfold q_host_port. destruct (inp_split_prefix_char 58 rem) as [rm|]; [|reflexivity].
        destruct (inp_is_empty rm); [reflexivity|].
        destruct (parse_port CSetter (default_port sch) rm) as [[p r0]|e|]; reflexivity. }
    cbn [bindo] in H. rewrite (username_eval dbg u W) in H. cbn [bindo] in H.
    exists h. split; [apply (scheme_eval u W)|]. right. exists rem. split; [reflexivity|].
    pose proof (parse_host_disp _ _ _ _ _ _ _ HF Ep) as Hdo.
    match type of H with (if ?c then _ else _) = _ => destruct c eqn:Ec end; [discriminate|].
    assert (hi_of_host h = HI_None -> port u = None
            /\ match q_host_port sch rem with Some (Some _) => False | _ => True end) as Hemp.
    { intros Hn. apply hi_of_host_none in Hn. subst h. cbn [andb] in Ec.
      apply orb_false_iff in Ec. destruct Ec as [Ec E3]. apply orb_false_iff in Ec. destruct Ec as [_ E2].
      split; [destruct (port u); [discriminate | reflexivity]|].
      destruct (q_host_port sch rem) as [[x|]|]; [discriminate | exact I | exact I]. }
    destruct (q_host_port sch rem) as [np|] eqn:Eq.
    + destruct (set_host_internal dbg hd u h (Some np)) as [u0|] eqn:E; cbn [bindo] in H; [|discriminate].
      inversion H; subst u0.
      apply (set_host_internal_port_post dbg hd u h np u' W Hdo); try assumption.
      * unfold q_host_port in Eq. destruct (inp_split_prefix_char 58 rem) as [rm|]; [|discriminate].
        destruct (inp_is_empty rm); [discriminate|].
        destruct (parse_port CSetter (default_port sch) rm) as [[p r0]|e|] eqn:Epp; try discriminate.
        inversion Eq; subst. exact (parse_port_le _ _ _ _ _ Epp).
      * intros Hn. destruct (Hemp Hn) as [Hp Hq]. split; [destruct np; [contradiction | reflexivity] | intros _; exact Hp].
    + destruct (set_host_internal dbg hd u h None) as [u0|] eqn:E; cbn [bindo] in H; [|discriminate].
      inversion H; subst u0.
      apply (set_host_internal_post dbg hd u h u' W Hdo); try assumption.
      intros _ Hn. exact (proj1 (Hemp Hn)).
Qed.

End QHost2.

(* on an opaque path nothing happens; otherwise it is Url::set_path with the argument, or with '/' in front
   of it, so the four set_path theorems of C06 (C06_frame_path, _noauth, _marker and their exactness
   companions) apply to it verbatim *)
Definition q_pathname_arg (st : scheme_type) (hh : bool) (v : list N) : list N :=
  if (match v with 47 :: _ => true | _ => false end) || (st_is_special st && (match v with 92 :: _ => true | _ => false end))
  then v
  else if st_is_special st || negb (match v with [] => true | _ => false end) || negb hh then 47 :: v else v.

Theorem q_set_pathname_eval dbg u v : wf_b u = true ->
  exists sch, scheme u = Some sch
    /\ q_set_pathname dbg u v
       = if negb (byte_eqb (ser u) (scheme_end u + 1) 47) then Some u
         else set_path dbg u (q_pathname_arg (scheme_type_of sch) (has_host u) v).
Proof.
  intros W. exists (piece u (pidx u BeforeScheme) (pidx u AfterScheme)). split; [apply (scheme_eval u W)|].
  unfold q_set_pathname. rewrite (cannot_be_a_base_eval u W). cbn [bindo].
  destruct (negb (byte_eqb (ser u) (scheme_end u + 1) 47)); [reflexivity|].
  unfold u_scheme_type. rewrite (scheme_eval u W). cbn [bindo]. unfold q_pathname_arg.
  destruct ((match v with 47 :: _ => true | _ => false end)
            || (st_is_special (scheme_type_of (piece u (pidx u BeforeScheme) (pidx u AfterScheme)))
                && (match v with 92 :: _ => true | _ => false end))); [reflexivity|].
  destruct (st_is_special (scheme_type_of (piece u (pidx u BeforeScheme) (pidx u AfterScheme)))
            || negb (match v with [] => true | _ => false end) || negb (has_host u)); reflexivity.
Qed.

Lemma q_pathname_arg_cases st hh v : q_pathname_arg st hh v = v \/ q_pathname_arg st hh v = 47 :: v.
Proof.
  unfold q_pathname_arg.
  destruct ((match v with 47 :: _ => true | _ => false end) || (st_is_special st && (match v with 92 :: _ => true | _ => false end)));
    [left; reflexivity|].
  destruct (st_is_special st || negb (match v with [] => true | _ => false end) || negb hh); [right | left]; reflexivity.
Qed.

Lemma q_pathname_arg_usv st hh v : usv_list v -> usv_list (q_pathname_arg st hh v).
Proof.
  intros Hv. destruct (q_pathname_arg_cases st hh v) as [->| ->]; [exact Hv|].
  constructor; [|exact Hv]. unfold is_usv. lia.
Qed.

(* non-vacuity: a host function instance and one call of each setter *)
(* texts over letters and digits (and the empty text) are hosts, displayed as they are *)
Definition qx_hp (s : list N) : result host := if forallb is_alnum s then Ok (HDomain s) else Err InvalidDomainCharacter.
Definition qx_hd (h : host) : list N := match h with HDomain d => d | _ => [] end.

Lemma qx_fns_ok : host_fns_ok qx_hp qx_hp qx_hd.
Proof.
  assert (forall s h, qx_hp s = Ok h -> host_disp_ok qx_hd h) as G.
  { intros s h. unfold qx_hp. destruct (forallb is_alnum s) eqn:E; [|discriminate]. intros H. inversion H; subst.
    unfold host_disp_ok. destruct s as [|c r]; [reflexivity|]. cbn [hi_of_host qx_hd]. exists c, r. split; [reflexivity|].
    cbn [forallb] in E. apply andb_true_iff in E. destruct E as [E _].
    unfold is_alnum, is_alpha, is_upper, is_lower, is_digit in E. lia. }
  split; [exact G | split; [exact G | reflexivity]].
Qed.

(* "a://h:80/p?q#f" *)
Definition qx_u : url := mkUrl [97;58;47;47;104;58;56;48;47;112;63;113;35;102] 1 4 4 5 HI_Domain (Some 80) 8 (Some 10) (Some 12).

Example quirks_inhabited :
  wfh qx_u /\ (has_authority_b qx_u = false -> path_start qx_u = scheme_end qx_u + 1)
  /\ (exists u', q_set_host true qx_hp qx_hp qx_hd qx_u [120; 58; 56; 49] = Some (u', SOk)
                  /\ ser u' = [97;58;47;47;120;58;56;49;47;112;63;113;35;102])
  /\ (exists u', q_set_hostname true qx_hp qx_hp qx_hd qx_u [121; 122] = Some (u', SOk)
                  /\ ser u' = [97;58;47;47;121;122;58;56;48;47;112;63;113;35;102])
  /\ (exists u', q_set_port true qx_u [57] = Some (u', SOk) /\ ser u' = [97;58;47;47;104;58;57;47;112;63;113;35;102])
  /\ (exists u', q_set_pathname true qx_u [122] = Some u' /\ ser u' = [97;58;47;47;104;58;56;48;47;122;63;113;35;102])
  /\ (exists u', set_host true qx_hp qx_hp qx_hd qx_u (Some [120; 58; 49]) = Some (u', SOk)
                  /\ ser u' = [97;58;47;47;120;58;56;48;47;112;63;113;35;102]).
Proof.
  split; [split; [vm_compute; reflexivity | intros _; vm_compute; repeat split; discriminate]|].
  split; [intros H; vm_compute in H; discriminate|].
  repeat split; eexists; split; vm_compute; reflexivity.
Qed.
