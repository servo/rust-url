(* Proofs/C02_Reach3.v - the quantifier of C02 with Url::query_pairs_mut.
   Reachable / Reachable2 (C02_Reach.v, C02_Hist.v) quantify over parse, join and the 19 operations of
   C02_Reach.op.  Url::query_pairs_mut (and Url::parse_with_params, which is parse followed by such a session)
   is a public mutator too, and its result is NOT produced by the parser - the output of
   form_urlencoded::Serializer is written into the serialization directly - so no theorem about the parser
   covers it.  Reachable3 = Reachable2 + query_pairs_mut sessions; C02_statement3 the statement over it
   (false: C02_Reach4.statement3_refuted).
   ReachC2 = the histories of C02_ReachPartial.ReachC extended by query_pairs_mut sessions: every record of such a
   history is Canon (C02_Form.qpm_Canon), hence a fixpoint of re-parsing. *)
From RU Require Import Proofs.C15_Ser.
From Coq Require Import String.
From RU Require Import Base.Prelude Base.Utf8 Model.HostT Model.UrlRecord Model.Parser Model.FormUrlencoded
  Model.QueryPairs Proofs.C02_Parts Proofs.C02_Reach Proofs.C02_AuthParts Proofs.C02_AuthMain Proofs.C02_Hist
  Proofs.C02_Canon Proofs.C02_JoinTail Proofs.C02_ReachPartial Proofs.C02_Form Proofs.C02_SetCredCanon
  Proofs.C02_QPort Proofs.C08_AbsNonfile.
Open Scope N_scope.
Open Scope list_scope.

Section Reach3.
Variable dbg : bool.
Variable hp hpo : list N -> result host.
Variable hd : host -> list N.

(* arguments of a session are Rust values: names and values are &str, an encoding override is a function from
   &str to bytes (C15_Ser.op_ok) *)
Inductive Reachable3 : url -> Prop :=
| R3_parse ovr input u :
    usv_list input -> parse_url dbg hp hpo hd ovr None input = POk u ->
    Known_file_drive u = false -> Reachable3 u
| R3_join ovr b input u :
    Reachable3 b -> usv_list input -> parse_url dbg hp hpo hd ovr (Some b) input = POk u ->
    Known_file_drive u = false -> Reachable3 u
| R3_step u o u' :
    Reachable3 u -> op_args_ok o -> known_step2 dbg hp hpo hd u o = false -> apply_op dbg hp hpo hd u o = Some u' ->
    Known_file_drive u' = false -> Reachable3 u'
| R3_qpm u ops u' :
    Reachable3 u -> Forall op_ok ops -> query_pairs_session dbg u ops = Some u' ->
    Known_file_drive u' = false -> Reachable3 u'.

Lemma Reachable2_3 u : Reachable2 dbg hp hpo hd u -> Reachable3 u.
Proof.
  induction 1 as [ovr input u Hu Hp Hk | ovr b input u Hb IH Hu Hp Hk | u o u' Hr IH Ha Hk Ho Hk'].
  - exact (R3_parse ovr input u Hu Hp Hk).
  - exact (R3_join ovr b input u IH Hu Hp Hk).
  - exact (R3_step u o u' IH Ha Hk Ho Hk').
Qed.
End Reach3.

Definition C02_statement3 : Prop :=
  forall dbg hp hpo hd, HostOK2 hp hpo hd ->
  forall u, Reachable3 dbg hp hpo hd u -> Fixpoint_of_reparse dbg hp hpo hd u.

Lemma statement3_implies_2 : C02_statement3 -> C02_statement.
Proof. intros H dbg hp hpo hd HOK u Hr. exact (H dbg hp hpo hd HOK u (Reachable2_3 dbg hp hpo hd u Hr)). Qed.

(* the mutators of C02_Reach.op for which L2 is proved on the four canonical forms *)
Definition canon_op (o : op) : bool :=
  match o with
  | OSetFragment _ | OSetQuery _ | OSetPort _ | OSetPassword _ | OSetUsername _
  | OQUsername _ | OQPassword _ | OQPort _ | OQSearch _ | OQHash _ => true   (* quirks setters: four wrappers, and port *)
  | _ => false
  end.

Lemma tail_op_canon o : tail_op o = true -> canon_op o = true.
Proof. destruct o; try discriminate; reflexivity. Qed.

Lemma canon_op_not_known dbg hp hpo hd u o : canon_op o = true -> known_step2 dbg hp hpo hd u o = false.
Proof. intros H. apply known_step2_host_or_path. destruct o; try discriminate H; reflexivity. Qed.

(* the arguments quirks::set_search and quirks::set_hash hand on to set_query and set_fragment *)
Lemma search_arg_usv s : usv_list s -> usv_opt (match s with [] => None | 63 :: r => Some r | _ => Some s end).
Proof.
  intros H. destruct s as [|x r]; [exact I|].
  destruct (N.eq_dec x 63) as [->|Hn]; [apply usv_cons in H; exact (proj2 H)|].
  destruct x as [|p]; [exact H|]. repeat (destruct p as [p|p|]; try exact H). exfalso. apply Hn. reflexivity.
Qed.
Lemma hash_arg_usv s : usv_list s -> usv_opt (match s with [] => None | 35 :: r => Some r | _ => Some s end).
Proof.
  intros H. destruct s as [|x r]; [exact I|].
  destruct (N.eq_dec x 35) as [->|Hn]; [apply usv_cons in H; exact (proj2 H)|].
  destruct x as [|p]; [exact H|]. repeat (destruct p as [p|p|]; try exact H). exfalso. apply Hn. reflexivity.
Qed.

Section ReachC2.
Variable dbg : bool.
Variable hp hpo : list N -> result host.
Variable hd : host -> list N.
Hypothesis HOK : HostOK2 hp hpo hd.

Let HRT : HostRT hp hpo hd := proj1 HOK.
Let HAb : host_above hp hpo hd := proj1 (proj2 HOK).

Inductive ReachC2 : url -> Prop :=
| RC2_parse ovr input u :
    usv_list input -> nonfile_input input = true -> (ovr = None \/ special_input input = false) ->
    parse_url dbg hp hpo hd ovr None input = POk u -> ReachC2 u
| RC2_join ovr b input u :
    ReachC2 b -> usv_list input -> tail_ref input = true ->
    (ovr = None \/ st_is_special (scheme_type_of (b_scheme b)) = false) ->
    parse_url dbg hp hpo hd ovr (Some b) input = POk u -> ReachC2 u
| RC2_step u o u' :
    ReachC2 u -> canon_op o = true -> op_args_ok o -> apply_op dbg hp hpo hd u o = Some u' ->
    nlen (ser u') <= U32_MAX_P -> ReachC2 u'
| RC2_qpm u ops u' :
    ReachC2 u -> Forall op_ok ops -> query_pairs_session dbg u ops = Some u' ->
    nlen (ser u') <= U32_MAX_P -> ReachC2 u'.

Lemma ReachC_C2 u : ReachC dbg hp hpo hd u -> ReachC2 u.
Proof.
  induction 1 as [ovr input u Hu Hn Hov Hp | ovr b input u Hr IH Hu Ht Hov Hp | u o u' Hr IH Ht Ha Ho Hb].
  - exact (RC2_parse ovr input u Hu Hn Hov Hp).
  - exact (RC2_join ovr b input u IH Hu Ht Hov Hp).
  - exact (RC2_step u o u' IH (tail_op_canon o Ht) Ha Ho Hb).
Qed.

(* one step with an operation of canon_op: the credential setters, and the quirks setters that wrap them or a
   setter of tail_op *)
Lemma canon_op_step u o u' : Canon hp hpo hd u -> canon_op o = true -> op_args_ok o ->
  apply_op dbg hp hpo hd u o = Some u' -> nlen (ser u') <= U32_MAX_P -> Canon hp hpo hd u'.
Proof.
  intros C Ht Ha Ho Hb. destruct (tail_op o) eqn:Et; [exact (tail_op_step dbg hp hpo hd HOK u o u' C Et Ha Ho Hb)|].
  destruct o; try discriminate Ht; try discriminate Et; cbn [apply_op op_args_ok] in *.
  - destruct (option_map_fst_some _ _ Ho) as [s Es].
    exact (set_password_Canon dbg hp hpo hd u p u' s C Ha Es Hb).
  - destruct (option_map_fst_some _ _ Ho) as [s0 Es].
    exact (set_username_Canon dbg hp hpo hd u s u' s0 C Ha Es Hb).
  - destruct (option_map_fst_some _ _ Ho) as [s0 Es].
    exact (set_username_Canon dbg hp hpo hd u s u' s0 C Ha Es Hb).
  - destruct (option_map_fst_some _ _ Ho) as [s0 Es].
    refine (set_password_Canon dbg hp hpo hd u _ u' s0 C _ Es Hb). destruct s; [exact I | exact Ha].
  - destruct (option_map_fst_some _ _ Ho) as [s0 Es].
    exact (q_set_port_Canon dbg hp hpo hd u s u' s0 C Es Hb).
  - exact (set_query_Canon dbg hp hpo hd HRT u _ u' C (search_arg_usv s Ha) Ho Hb).
  - exact (set_fragment_Canon dbg hp hpo hd HRT u _ u' C (hash_arg_usv s Ha) Ho Hb).
Qed.

Theorem ReachC2_Canon u : ReachC2 u -> Canon hp hpo hd u.
Proof.
  induction 1 as [ovr input u Hu Hn Hov Hp | ovr b input u Hr IH Hu Ht Hov Hp | u o u' Hr IH Ht Ha Ho Hb
                 | u ops u' Hr IH Hops Hs Hb].
  - exact (parse_Canon dbg hp hpo hd HRT ovr input u HAb Hu Hn Hov Hp).
  - exact (join_tail_Canon dbg hp hpo hd HRT ovr b input u IH Hu Ht Hov Hp).
  - exact (canon_op_step u o u' IH Ht Ha Ho Hb).
  - exact (qpm_Canon dbg hp hpo hd HRT u ops u' IH Hops Hs Hb).
Qed.

(* C08's law 'an absolute URL's own serialization resolves to itself' for these histories: Canon is the class
   nonfile_form of Proofs/C08_AbsNonfile.v, whose text never consults the base - against EVERY base record b *)
Lemma Canon_nonfile_form u : Canon hp hpo hd u -> nonfile_form hp hpo hd u.
Proof.
  intros [sch P q f K | sch segs last q f K | sch ui h pt p q f K | sch ui h pt p q f K Kp].
  - exact (NF_opaque hp hpo hd _ sch P q f K eq_refl).
  - exact (NF_noauth hp hpo hd _ sch segs last q f K eq_refl).
  - exact (NF_auth hp hpo hd _ sch ui h pt p q f K eq_refl).
  - exact (NF_special hp hpo hd _ sch ui h pt p q f K Kp eq_refl).
Qed.

Theorem Canon_absolute u b : Canon hp hpo hd u ->
  parse_url dbg hp hpo hd None (Some b) (utf8_lossy (ser u)) = POk u.
Proof. intros C. exact (absolute_form dbg hp hpo hd HRT b u (Canon_nonfile_form u C)). Qed.

Theorem ReachC2_Reachable3 u : ReachC2 u -> Reachable3 dbg hp hpo hd u.
Proof.
  assert (nd : forall v, ReachC2 v -> Known_file_drive v = false)
    by (intros v Hv; exact (Canon_not_file_drive hp hpo hd v (ReachC2_Canon v Hv))).
  intros H. pose proof (nd u H) as Hd. revert Hd.
  induction H as [ovr input u Hu Hn Hov Hp | ovr b input u Hr IH Hu Ht Hov Hp | u o u' Hr IH Ht Ha Ho Hb
                 | u ops u' Hr IH Hops Hs Hb]; intros Hd.
  - exact (R3_parse dbg hp hpo hd ovr input u Hu Hp Hd).
  - exact (R3_join dbg hp hpo hd ovr b input u (IH (nd b Hr)) Hu Hp Hd).
  - exact (R3_step dbg hp hpo hd u o u' (IH (nd u Hr)) Ha
             (canon_op_not_known dbg hp hpo hd u o Ht) Ho Hd).
  - exact (R3_qpm dbg hp hpo hd u ops u' (IH (nd u Hr)) Hops Hs Hd).
Qed.
End ReachC2.

(* non-vacuity: http://h/p?a='#f -> query_pairs_mut().append_pair("k'", "v w~").append_key_only("*") =
   http://h/p?a=%27&k%27=v+w%7E&*#f , a fixpoint; a:b c -> query_pairs_mut().clear() = a:b c? *)
Definition ex_qpm (start : string) (ops : list ser_op) : option url :=
  match parse_url true ex_hp ex_hp ex_hd None None (B start) with
  | POk u => query_pairs_session true u ops
  | _ => None
  end.

Example qpm_example :
  match ex_qpm "http://h/p?a='#f" [OpAppendPair (B "k'") (B "v w~"); OpAppendKeyOnly (B "*")] with
  | Some u => list_eqb (ser u) (B "http://h/p?a=%27&k%27=v+w%7E&*#f")
              && match parse_url true ex_hp ex_hp ex_hd None None (ser u) with POk v => url_eqb v u | _ => false end
  | None => false
  end = true
  /\ match ex_qpm "a:b c" [OpClear] with
     | Some u => list_eqb (ser u) (B "a:b c?")
                 && match parse_url true ex_hp ex_hp ex_hd None None (ser u) with POk v => url_eqb v u | _ => false end
     | None => false end = true.
Proof. vm_compute. split; reflexivity. Qed.

(* a history with the two credential setters: a://h.x/p -> set_username("u s") -> set_password("p:w") ->
   set_username("") -> set_password(None) gives a://u%20s@h.x/p, a://u%20s:p%3Aw@h.x/p, a://:p%3Aw@h.x/p, a://h.x/p *)
Example cred_example :
  match ex_hist "a://h.x/p" [OSetUsername (B "u s")] with Some u => list_eqb (ser u) (B "a://u%20s@h.x/p") | None => false end = true
  /\ match ex_hist "a://h.x/p" [OSetUsername (B "u s"); OSetPassword (Some (B "p:w"))] with
     | Some u => list_eqb (ser u) (B "a://u%20s:p%3Aw@h.x/p") | None => false end = true
  /\ match ex_hist "a://h.x/p" [OSetUsername (B "u s"); OSetPassword (Some (B "p:w")); OSetUsername []] with
     | Some u => list_eqb (ser u) (B "a://:p%3Aw@h.x/p")
                 && match parse_url true ex_hp ex_hp ex_hd None None (ser u) with POk v => url_eqb v u | _ => false end
     | None => false end = true
  /\ match ex_hist "a://h.x/p" [OSetUsername (B "u s"); OSetPassword (Some (B "p:w")); OSetUsername []; OSetPassword None] with
     | Some u => list_eqb (ser u) (B "a://h.x/p") | None => false end = true.
Proof. vm_compute. repeat split. Qed.
