(* Proofs/C05_ParseArms.v - the userinfo and path clauses (up_ok, Proofs/C05_ParseUI.v) for the record every
   arm of the parser returns: after "//" (userinfo, host, port, path), "scheme:/path", "scheme:opaque",
   the relative references against a base that satisfies the clauses (empty, "?q", "#f", "//authority",
   "/path", "path"), and the file states.  No hypothesis on the input numbers, on the encoding override or
   on the host functions (the clauses do not look at the host text); the base is well-formed, not
   cannot-be-a-base where the parser takes its path apart, and satisfies up_ok. *)
From RU Require Import Base.Prelude Base.Utf8 Model.AsciiSet Gen.Tables Model.PercentEncoding
  Model.HostT Model.UrlRecord Model.Parser Model.Setters Model.WF
  Proofs.ListN Proofs.C06_List Proofs.C02_Parts Proofs.C03_WF Proofs.C06_WFI Proofs.C06_Tail Proofs.C06_Steps
  Proofs.C06_PathParser Proofs.C06_FragQuery Proofs.C04_Parse Proofs.C04_PathTotal Proofs.C04_ParseTotal Proofs.C03_ReachParts Proofs.C03_Reach
  Proofs.C14_Enc
  Proofs.C05_Enc Proofs.C05_Parser Proofs.C05_Setters Proofs.C05_History Proofs.C05_Sharp Proofs.C05_Frag Proofs.C05_Query
  Proofs.C05_Comp Proofs.C05_PathClean Proofs.C05_CompSteps Proofs.C05_ParseUI.

Ltac urec2 :=
  cbn [ser scheme_end username_end host_start host_end hosti port path_start query_start fragment_start url_with file_url].

(* the opaque-path state: the text it writes does not start with '/' *)
Lemma pe_display_two S b1 b2 r : should_encode S b1 = true -> should_encode S b2 = true -> is_byte b2 ->
  pe_display S (b1 :: b2 :: r) <> [].
Proof.
  intros H1 H2 Hb. unfold pe_display, pe_chunks. cbn [length pe_chunks_f pe_next]. rewrite H1.
  cbn [pe_chunks_f pe_next]. rewrite H2. cbn [concat]. rewrite (enc_byte_is_spec b2 Hb). unfold enc_byte_spec.
  intros E. apply app_eq_nil in E. destruct E as [_ E]. discriminate.
Qed.

Lemma pe_display_one S c : c < 128 -> pe_display S [c] <> [].
Proof.
  intros Hc. unfold pe_display, pe_chunks. cbn [length pe_chunks_f pe_next]. destruct (should_encode S c).
  - cbn [pe_chunks_f concat]. rewrite (enc_byte_is_spec c) by (unfold is_byte; lia). discriminate.
  - cbn [span_keep pe_chunks_f concat app]. discriminate.
Qed.

Lemma high_encoded S b : 128 <= b -> should_encode S b = true.
Proof. intros H. unfold should_encode. replace (128 <=? b) with true by lia. reflexivity. Qed.

Lemma pe_display_char_nonempty S c : pe_display S (utf8_encode [c]) <> [].
Proof.
  cbn [utf8_encode flat_map]. rewrite app_nil_r. unfold utf8_encode1.
  destruct (c <? 128) eqn:E1; [apply pe_display_one; lia|].
  destruct (c <? 2048); [|destruct (c <? 65536)];
    (apply pe_display_two; [apply high_encoded; lia | apply high_encoded; lia | unfold is_byte; lia]).
Qed.

Definition not_slash (d : N) : bool := negb (d =? 47).

Lemma pe_display_char_head S c : c <> 47 -> forall y r, pe_display S (utf8_encode [c]) ++ y <> 47 :: r.
Proof.
  intros Hc y r E.
  assert (forallb not_slash (pe_display S (utf8_encode [c])) = true) as Q.
  { apply pe_display_char_Q; [intros d; unfold pct_out, not_slash, is_digit; lia | unfold not_slash; lia]. }
  pose proof (pe_display_char_nonempty S c) as Hne.
  destruct (pe_display S (utf8_encode [c])) as [|e t]; [contradiction|].
  cbn [app] in E. inversion E; subst e. cbn [forallb] in Q. unfold not_slash in Q. cbn in Q. discriminate.
Qed.

Lemma split_prefix_tnl c r x : is_tnl x = true -> inp_split_prefix_char c (x :: r) = inp_split_prefix_char c r.
Proof. intros H. unfold inp_split_prefix_char, inp_next. cbn [drop_while]. rewrite H. reflexivity. Qed.

Lemma cbb_path_head l : forall ser, inp_split_prefix_char 47 l = None ->
  exists x, fst (parse_cannot_be_a_base_path CUrlParser ser l) = ser ++ x /\ path_raw x.
Proof.
  induction l as [|c r IH]; intros ser H; cbn [parse_cannot_be_a_base_path].
  - exists []. rewrite app_nil_r. split; [reflexivity | apply path_raw_nil].
  - destruct (is_tnl c) eqn:Et; [apply IH; rewrite (split_prefix_tnl 47 r c Et) in H; exact H|].
    assert (c <> 47) as Hc.
    { unfold inp_split_prefix_char, inp_next in H. cbn [drop_while] in H. rewrite Et in H.
      destruct (c =? 47) eqn:E; [discriminate | lia]. }
    cbn [ctx_eqb]. rewrite andb_true_r. destruct ((c =? 63) || (c =? 35)).
    + exists []. rewrite app_nil_r. split; [reflexivity | apply path_raw_nil].
    + destruct (cbb_path_shape r (push_encoded T_CONTROLS ser [c])) as (y & Ey & _). unfold push_encoded in *.
      exists (pe_display T_CONTROLS (utf8_encode [c]) ++ y). rewrite app_assoc. split; [exact Ey|].
      intros r0 E. exfalso. exact (pe_display_char_head T_CONTROLS c Hc y r0 E).
Qed.

Lemma css_after se ser0 y : nlen ser0 = se + 1 -> nnth ser0 se = Some 58 ->
  starts_with s_css (nskipn se ((ser0 ++ [47; 47]) ++ y)) = true.
Proof.
  intros L H. apply css_of_bytes.
  - rewrite nnth_app_lt by (rewrite nlen_app; lia). rewrite nnth_app_lt by lia. exact H.
  - rewrite nnth_app_lt by (rewrite nlen_app; change (nlen [47; 47]) with 2; lia). rewrite nnth_app_ge by lia.
    replace (se + 1 - nlen ser0) with 0 by lia. reflexivity.
  - rewrite nnth_app_lt by (rewrite nlen_app; change (nlen [47; 47]) with 2; lia). rewrite nnth_app_ge by lia.
    replace (se + 2 - nlen ser0) with 1 by lia. reflexivity.
Qed.

Lemma pinvq_raw ps pre s : PInvQ ps pre s -> path_raw (nskipn ps s).
Proof. intros [_ H]. apply path_raw_pq. exact H. Qed.

(* what the clauses of a well-formed base give for a serialization that keeps its front *)
Lemma base_G b s : wf_b b = true -> agree_pre (path_start b) (ser b) s ->
  (username_end b <= scheme_end b + 3 /\ host_start b <= username_end b + 2)
  \/ (scheme_end b + 3 <= path_start b /\ username_end b <= path_start b /\ host_start b <= path_start b
      /\ starts_with s_css (nskipn (scheme_end b) s) = true).
Proof.
  intros W Hpre. destruct (has_authority_b b) eqn:Ha.
  - right. pose proof (wf_auth_facts b W Ha) as F.
    pose proof (af_ue F); pose proof (af_hs F); pose proof (af_he F); pose proof (af_ps F).
    split; [lia|]. split; [lia|]. split; [lia|].
    rewrite <- Ha. unfold has_authority_b. symmetry. apply (pre_starts_with (path_start b)); [apply agree_pre_sym; exact Hpre|].
    change (nlen s_css) with 3. lia.
  - left. pose proof (wf_noauth_facts b W Ha) as F. rewrite (nf_ue F), (nf_hs F). lia.
Qed.

Lemma base_ui b s : wf_b b = true -> up_ok b -> agree_pre (path_start b) (ser b) s ->
  ui_raw s (scheme_end b) (username_end b) (host_start b).
Proof.
  intros W [U _] Hpre. destruct (wf_ui_bounds b W) as [B1 B2].
  apply (ui_raw_pre (path_start b) (ser b) s _ _ _ Hpre B1); [lia | exact U].
Qed.

(* the path of a base that is not cannot-be-a-base consists of bytes outside D_PATH *)
Lemma base_path_pq b : wf_b b = true -> up_ok b -> nnth (ser b) (scheme_end b + 1) = Some 47 ->
  forallb pq (piece b (path_start b) (path_end b)) = true.
Proof.
  intros W [_ P] Hs.
  assert (cannot_be_a_base b = Some false) as C.
  { rewrite (cannot_be_a_base_eval b W). apply byte_eqb_true_iff in Hs. rewrite Hs. reflexivity. }
  destruct (hier_path_head b _ W C (path_eval b W)) as [E|(r & E)].
  - cbn [pidx] in E. change (match query_start b with Some q => q | None => match fragment_start b with Some f => f | None => nlen (ser b) end end)
      with (path_end b) in E. rewrite E. reflexivity.
  - cbn [pidx] in E. change (match query_start b with Some q => q | None => match fragment_start b with Some f => f | None => nlen (ser b) end end)
      with (path_end b) in E. exact (P r E).
Qed.

Lemma bq_path b : wf_b b = true -> nskipn (path_start b) (b_before_query b) = piece b (path_start b) (path_end b).
Proof.
  intros W. destruct (bq_shape b W) as (-> & P1 & P2). unfold piece.
  replace (path_end b) with (path_start b + (path_end b - path_start b)) at 1 by lia.
  apply nskipn_nfirstn_comm.
Qed.

Lemma bq_pinvq b : wf_b b = true -> up_ok b -> nnth (ser b) (scheme_end b + 1) = Some 47 ->
  PInvQ (path_start b) (nfirstn (path_start b) (ser b)) (b_before_query b).
Proof.
  intros W U Hs. split; [|rewrite (bq_path b W); exact (base_path_pq b W U Hs)].
  destruct (bq_shape b W) as (-> & P1 & P2). apply nfirstn_nfirstn. exact P1.
Qed.

(* a record that keeps the serialization of the base up to the end of its path, and that end *)
Lemma base_keep b s qs fs a : wf_b b = true -> up_ok b -> agree_pre a (ser b) s -> path_end b <= a ->
  path_end (url_with b s qs fs) = path_end b -> up_ok (url_with b s qs fs).
Proof.
  intros W U Hpre Ha Epe. destruct (wf_ps_le_path_end b W) as [P1 P2]. split.
  - urec2. apply (base_ui b s W U). apply (agree_pre_le a _ _ _ Hpre). lia.
  - rewrite Epe. unfold piece. urec2. rewrite (pre_piece a (ser b) s (path_start b) (path_end b) Hpre Ha).
    exact (proj2 U).
Qed.

Lemma bf_len b f : wf_b b = true -> fragment_start b = Some f -> nlen (nfirstn f (ser b)) = f /\ path_end b <= f.
Proof.
  intros W Ef. pose proof (wf_qf_facts b W) as QF. pose proof (qf_f QF) as Q2. pose proof (qf_q QF) as Q1. pose proof (qf_qf QF) as Q3.
  rewrite Ef in Q2, Q3. split; [apply nlen_nfirstn; lia|]. unfold path_end. rewrite Ef.
  destruct (query_start b) as [q|]; lia.
Qed.

(* what is left of the base in front of its fragment: everything up to the end of the path *)
Lemma bf_path_end b : wf_b b = true ->
  agree_pre (path_end b) (ser b) (b_before_fragment b)
  /\ path_end b <= nlen (b_before_fragment b)
  /\ (query_start b = None -> nlen (b_before_fragment b) = path_end b).
Proof.
  intros W. destruct (wf_ps_le_path_end b W) as [L2 L3]. unfold b_before_fragment.
  destruct (fragment_start b) as [f|] eqn:Ef.
  - destruct (bf_len b f W Ef) as [Lf Hpe]. split; [apply agree_pre_nfirstn_ge; exact Hpe|]. split; [lia|].
    intros Eq. rewrite Lf. unfold path_end. rewrite Eq, Ef. reflexivity.
  - split; [reflexivity|]. split; [exact L3|]. intros Eq. unfold path_end. rewrite Eq, Ef. reflexivity.
Qed.

(* the empty reference: the base without its fragment *)
Lemma cut_fragment_up b : wf_b b = true -> up_ok b ->
  up_ok (url_with b (b_before_fragment b) (query_start b) None).
Proof.
  intros W U. unfold b_before_fragment. destruct (fragment_start b) as [f|] eqn:Ef.
  - destruct (bf_len b f W Ef) as [Lf Hpe].
    apply (base_keep b _ _ _ f W U); [apply agree_pre_trunc | exact Hpe|].
    unfold path_end. urec2. rewrite Ef, Lf. reflexivity.
  - apply (base_keep b _ _ _ (nlen (ser b)) W U); [reflexivity | apply (wf_ps_le_path_end b W)|].
    unfold path_end. urec2. rewrite Ef. reflexivity.
Qed.

Lemma fragment_only_up b l u : wf_b b = true -> up_ok b -> fragment_only b l = POk u -> up_ok u.
Proof.
  intros W U. unfold fragment_only. cbv zeta. intros H. pb H fs Hfs. apply to_u32_eq in Hfs. subst fs.
  inversion H; subst u. clear H. rewrite parse_fragment_text. rewrite <- app_assoc.
  set (bf := b_before_fragment b). destruct (bf_path_end b W) as (A1 & A2 & A3). fold bf in A1, A2, A3.
  change (up_ok (url_with b (bf ++ [35] ++ tnl_text T_FRAGMENT match inp_next l with Some (_, r) => r | None => [] end)
                   (query_start b) (Some (nlen bf)))).
  apply (base_keep b _ _ _ (path_end b) W U); [|apply N.le_refl|].
  - eapply agree_pre_trans; [exact A1 | apply agree_pre_app_le; exact A2].
  - unfold path_end at 1. urec2. destruct (query_start b) as [q|] eqn:Eq; [unfold path_end; rewrite Eq; reflexivity|].
    apply A3. reflexivity.
Qed.

(* "?query" against a base *)
Lemma query_ref_up ovr b st se0 l s qs fs : wf_b b = true -> up_ok b ->
  parse_query_and_fragment ovr CUrlParser st se0 (b_before_query b) l = POk (s, qs, fs) -> up_ok (url_with b s qs fs).
Proof.
  intros W U H. destruct (bq_shape b W) as (Ebq & P1 & P2).
  assert (nlen (b_before_query b) = path_end b) as Lbq by (rewrite Ebq; apply nlen_nfirstn; exact P2).
  destruct (wf_ui_bounds b W) as [B1 B2].
  apply (pqf_up ovr st se0 (b_before_query b) l s qs fs _ _ _ _ _ _ _ H); [lia| |].
  - intros t. apply ui_raw_app; [lia | lia|]. apply (base_ui b _ W U). rewrite Ebq. apply agree_pre_nfirstn_ge. exact P1.
  - rewrite (bq_path b W). exact (proj2 U).
Qed.

(* a new path behind the front of the base *)
Lemma base_path_up ovr st b s rem u : wf_b b = true -> up_ok b ->
  PInvQ (path_start b) (nfirstn (path_start b) (ser b)) s ->
  with_query_and_fragment ovr CUrlParser st (scheme_end b) (username_end b) (host_start b) (host_end b)
    (hosti b) (port b) (path_start b) s rem = POk u -> up_ok u.
Proof.
  intros W U I H. pose proof (path_start_le_len b W) as PL.
  assert (nlen (nfirstn (path_start b) (ser b)) = path_start b) as Lp by (apply nlen_nfirstn; exact PL).
  pose proof (pinvq_len _ _ Lp s I) as Ls.
  assert (agree_pre (path_start b) (ser b) s) as Hpre by exact (proj1 I).
  eapply wqf_up; [exact H | exact Ls | exact (base_G b s W Hpre) | exact (base_ui b s W U Hpre) | exact (pinvq_raw _ _ _ I)].
Qed.

Section Arms.
Variable dbg : bool.
Variable hp hpo : list N -> result host.
Variable hd : host -> list N.
Variable ovr : option (list N -> list N).

Lemma phap_pre ctx st se ser l ser2 he hi pt rem :
  parse_host_and_port hp hpo hd ctx st se ser l = POk (ser2, he, hi, pt, rem) -> exists t, ser2 = ser ++ t.
Proof.
  unfold parse_host_and_port. intros H. pb H a Ha. destruct a as [host remaining]. cbv zeta in H.
  pb H he0 Hhe. pb H x Hx. destruct (inp_split_prefix_char 58 remaining) as [rm|].
  - pb H b Hb. destruct b as [port rem2]. inversion H; subst. destruct pt as [p|].
    + eexists. rewrite <- app_assoc. reflexivity.
    + eexists. reflexivity.
  - inversion H; subst. eexists. reflexivity.
Qed.

Theorem ads_up st se ser0 l u : nlen ser0 = se + 1 -> nnth ser0 se = Some 58 ->
  after_double_slash dbg hp hpo hd ovr CUrlParser st se ser0 l = POk u -> up_ok u.
Proof.
  intros L0 H58 H0.
  destruct (after_double_slash_steps dbg hp hpo hd ovr _ _ _ _ _ _ H0)
    as (ser1 & ue & rm & ser2 & he & hi & pt & rm2 & s3 & hh & rm3 & Ha & Hb & Hc & H).
  assert (nlen (ser0 ++ [47; 47]) = se + 3) as LA by (rewrite nlen_app, L0; change (nlen [47; 47]) with 2; lia).
  destruct (userinfo_ui_raw st se (ser0 ++ [47; 47]) l ser1 ue rm LA Ha) as (U & B1 & B2 & x & ->).
  destruct (phap_pre _ _ _ _ _ _ _ _ _ _ Hb) as (t & ->).
  destruct (parse_path_start_clean dbg CUrlParser st true _ rm2 s3 hh rm3 Hc) as (P & -> & HP).
  set (S1 := (ser0 ++ [47; 47]) ++ x) in *. set (S2 := S1 ++ t) in *.
  assert (nlen S1 <= nlen S2) as L12 by (subst S2; rewrite nlen_app; lia).
  eapply wqf_up; [exact H | rewrite nlen_app; lia | right | | ].
  - split; [subst S1; rewrite nlen_app in L12; lia|]. split; [lia|]. split; [exact L12|].
    subst S2 S1. rewrite <- !app_assoc. rewrite (app_assoc ser0). apply css_after; assumption.
  - subst S2. rewrite <- app_assoc. apply ui_raw_app; [exact B2 | lia | exact U].
  - rewrite nskipn_app_exact. apply path_raw_pq. exact HP.
Qed.

(* "scheme:/path" and "scheme:opaque" *)
Theorem parse_non_special_up st se ser0 l u : nlen ser0 = se + 1 -> nnth ser0 se = Some 58 ->
  parse_non_special dbg hp hpo hd ovr CUrlParser st se ser0 l = POk u -> up_ok u.
Proof.
  intros L0 H58 H0.
  assert (forall s1 rem, nlen ser0 <= nlen s1 -> path_raw (nskipn (nlen ser0) s1) ->
            with_query_and_fragment ovr CUrlParser st se (nlen ser0) (nlen ser0) (nlen ser0) HI_None None (nlen ser0) s1 rem = POk u ->
            up_ok u) as Hw0.
  { intros s1 rem Lp Pp H. eapply wqf_up; [exact H | exact Lp | left; lia | | exact Pp]. apply ui_raw_trivial; lia. }
  destruct (parse_non_special_case dbg hp hpo hd ovr CUrlParser st se ser0 l u H0)
    as [rm _ Ha | r s hh rem _ _ Hp Hw | _ E47 Hw].
  - exact (ads_up st se ser0 rm u L0 H58 Ha).
  - assert (PInvQ (nlen ser0) ser0 (ser0 ++ [47])) as I1 by (apply pinvq_app; [reflexivity | apply pinvq_start | reflexivity]).
    pose proof (pinvq_parse_path dbg (nlen ser0) ser0 eq_refl _ _ _ _ _ _ _ _ Hp I1) as I2.
    exact (Hw0 s rem (pinvq_len (nlen ser0) ser0 eq_refl s I2) (pinvq_raw _ _ _ I2) Hw).
  - destruct (cbb_path_head l ser0 E47) as (x & Ex & Hx). rewrite Ex in Hw.
    eapply Hw0; [|rewrite nskipn_app_exact; exact Hx | exact Hw]. rewrite nlen_app. lia.
Qed.

Theorem parse_relative_up st b l u : wf_b b = true -> up_ok b ->
  nnth (ser b) (scheme_end b + 1) = Some 47 ->
  parse_relative dbg hp hpo hd ovr CUrlParser st b l = POk u -> up_ok u.
Proof.
  intros W U Hs H. pose proof (path_start_le_len b W) as PL.
  assert (nlen (nfirstn (path_start b) (ser b)) = path_start b) as Lp by (apply nlen_nfirstn; exact PL).
  destruct (wf_scheme_facts b W) as (S1 & S2 & S3).
  destruct (parse_relative_case dbg hp hpo hd ovr CUrlParser st b l u H)
    as [-> | s qs fs Hq -> | Hf | x Ha | r s hh rem Hp Hw | s1 x s3 hh rem _ Hs1 Hp Hw].
  - apply cut_fragment_up; assumption.
  - eapply query_ref_up; eassumption.
  - exact (fragment_only_up b l u W U Hf).
  - apply (ads_up st (scheme_end b) (nfirstn (scheme_end b + 1) (ser b)) x u); [apply nlen_nfirstn; lia | | exact Ha].
    rewrite nnth_nfirstn by lia. apply byte_eqb_nnth. exact S2.
  - assert (PInvQ (path_start b) (nfirstn (path_start b) (ser b)) (nfirstn (path_start b) (ser b) ++ [47])) as I1.
    { apply pinvq_app; [exact Lp | | reflexivity]. rewrite <- Lp at 1. apply pinvq_start. }
    pose proof (pinvq_parse_path dbg _ _ Lp _ _ _ _ _ _ _ _ Hp I1) as I2.
    eapply base_path_up; eassumption.
  - pose proof (pathinv_pop_path _ _ pq Lp _ _ _ Hs1 (bq_pinvq b W U Hs)) as I1.
    assert (PInvQ (path_start b) (nfirstn (path_start b) (ser b)) s3) as I3.
    { apply (pinvq_parse_path dbg _ _ Lp _ _ _ _ _ _ _ _ Hp).
      destruct ((nlen s1 =? path_start b) && _); [|exact I1]. apply pinvq_app; [exact Lp | exact I1 | reflexivity]. }
    eapply base_path_up; eassumption.
Qed.

End Arms.
