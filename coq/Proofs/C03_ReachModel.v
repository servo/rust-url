(* Proofs/C03_ReachModel.v - C03_reachability_full instantiated with the host MODEL (Model/Host.v: host_parse idna,
   host_parse_opaque, host_display) under the only premise IdnaOK idna (C09): the five hypotheses on the host
   functions are met - HostWf (C09_InstWf), host_nonempty (C02_Reach4), IpWf (from C02's address clause), HostOK of
   C05 (C09_Inst), IpOKv (C09_Inst.model_IpOK_wf). *)
From RU Require Import Model.Host Proofs.C02_HistInst Proofs.C02_SetHostCanon Proofs.C02_Reach3 Proofs.C02_Reach4
  Proofs.C09_Host Proofs.C09_Inst Proofs.C09_InstWf Proofs.C05_Parser Proofs.C05_Alphabet Proofs.C03_ReachParts
  Proofs.C03_AuthEnd Proofs.C03_ParseFront Proofs.C03_ReachFull.

Lemma model_IpOKv03 : IpOKv host_display.
Proof. intros h Hv. apply model_IpOK_wf. destruct h as [d|a|p]; [destruct Hv | exact Hv | exact Hv]. Qed.

Theorem model_full_hyps idna : IdnaOK idna ->
  HostWf (host_parse idna) host_parse_opaque host_display /\ host_nonempty (host_parse idna) host_parse_opaque
  /\ IpWf host_display /\ HostOK (host_parse idna) host_parse_opaque host_display /\ IpOKv host_display.
Proof.
  intros OK. pose proof (model_HostWf idna OK) as HW. destruct (HostOK2_model idna OK) as (_ & _ & HC).
  split; [exact HW|]. split; [exact (host_nonempty_model idna)|].
  split; [exact (ipwf_of_clause _ _ _ HW HC)|]. split; [exact (model_HostOK_C05 idna OK) | exact model_IpOKv03].
Qed.

Theorem reach3_model dbg idna : IdnaOK idna ->
  forall u, Reachable3 dbg (host_parse idna) host_parse_opaque host_display u -> inv03 u.
Proof.
  intros OK u R. destruct (model_full_hyps idna OK) as (HW & HNE & HIPW & HOK & HIP).
  exact (proj1 (reach3_inv_all dbg _ _ _ HW HNE HIPW HOK HIP u R)).
Qed.
