(* Proofs/Idna_WalkPass.v - the Passthrough clause of C11 for every adapter (passthrough_own_result of
   Proofs/Idna_WalkApi.v has the premise Redisc, c11_passthrough_full there map_normalize A [] = []; these are
   passthrough_own_result_all and c11_passthrough_all).
   An error-free marking run whose already_punycode has no AalOther entry is reproduced exactly by the fail-fast run
   (process_inner_cmp of Proofs/Idna_WalkInv.v) - and a Passthrough result has no such entry. *)
From RU Require Import Base.Prelude Base.Utf8 Base.U32_c13 Gen.Tables Model.Punycode Model.Uts46
  Proofs.Idna_Sim Proofs.Idna_Api Proofs.Idna_Known Proofs.Idna_Hyp Proofs.Idna_Redisc
  Proofs.Idna_C10_Deny Proofs.Idna_C10_Prefix Proofs.Idna_C10_Inner Proofs.Idna_C10_Walk
  Proofs.Idna_Mark Proofs.Idna_MarkWalk Proofs.Idna_MarkFffd Proofs.Idna_WalkFun Proofs.Idna_WalkInv Proofs.Idna_WalkApi.

Section Pass.
Variable A : adapter.
Variable cfg : bool.

(* inner_osim rt rf: the conclusion of process_inner_cmp (Proofs/Idna_WalkInv.v) as a relation between the fail-fast
   result rt and the marking result rf: rt is the early return and rf has an error or an AalOther entry, or rf is
   error-free and rt = rf *)
Definition inner_osim (rt rf : inner_res) : Prop :=
  (rt = I_EXIT /\ match rf with IRes _ _ he _ ap => he = true \/ In AalOther ap | IPanic _ => True end) \/
  match rf with
  | IRes ptu b he db ap => he = false /\ rt = rf
  | IPanic s => rt = rf
  end.

Theorem process_inner_osim hy deny d :
  inner_osim (process_inner A cfg true hy deny d) (process_inner A cfg false hy deny d).
Proof. exact (process_inner_cmp A cfg hy deny d _ _ eq_refl eq_refl). Qed.

(* an error-free marking run without AalOther entry is what the fail-fast run returns *)
Corollary ff_of_mark_noother hy deny d ptu bd db ap :
  process_inner A cfg false hy deny d = IRes ptu bd false db ap -> ~ In AalOther ap ->
  process_inner A cfg true hy deny d = IRes ptu bd false db ap.
Proof.
  intros H Hn. pose proof (process_inner_osim hy deny d) as HS. rewrite H in HS.
  destruct HS as [[_ [HS|HS]]|[_ HS]]; [discriminate|contradiction|exact HS].
Qed.

Lemma stays_no_other uni labels : forall ap, length labels = length ap -> stays uni labels ap = true -> ~ In AalOther ap.
Proof.
  induction labels as [|l ls IH]; intros ap Hlen Hs Hin; destruct ap as [|ip ips]; try discriminate; [destruct Hin|].
  cbn [stays length] in *. apply andb_true_iff in Hs. destruct Hs as [H1 H2].
  destruct Hin as [->|Hin]; [discriminate|]. exact (IH ips ltac:(lia) H2 Hin).
Qed.

(* the marking run that never leaves the passed-through prefix has an empty already_punycode *)
Lemma mark_all_prefix_ap hy deny d ptu bd he db ap :
  process_inner A cfg false hy deny d = IRes ptu bd he db ap -> ptu = len d -> ap = [].
Proof.
  unfold process_inner. destruct (fast_tier d d) as [tail|] eqn:Ef; [|intros H _; inversion H; reflexivity].
  assert (Hpre : exists pre, d = pre ++ tail).
  { destruct (fast_tier_suffix d d tail Ef) as [->|(pre & Hd)]; [exists []; reflexivity|exists pre; exact Hd]. }
  destruct Hpre as (pre & Hd). unfold process_innermost.
  set (s0 := {| i_ptu := len d - len tail; i_seen := false; i_inpre := true; i_db := []; i_he := false; i_ap := [] |}).
  assert (H0 : SInv d s0 (split_on DOT tail)).
  { exists pre. unfold s0. cbn [i_db i_ap i_ptu i_inpre i_seen i_he]. split; [rewrite Hd, len_app; lia|].
    repeat split. cbn [tailtext]. rewrite join_split. exact Hd. }
  pose proof (labels_loop_SInv A cfg d hy deny (split_on DOT tail) (split_on_nodot tail) s0 H0) as HL.
  destruct (labels_loop A cfg false hy deny (split_on DOT tail) s0) as [s| |p]; cbn [SPost] in HL; [|contradiction|discriminate].
  destruct HL as (P & HP & HS).
  assert (Hap : i_ptu s = len d -> i_ap s = []).
  { intros E. destruct (i_inpre s); [exact (proj1 (proj2 HS))|]. destruct HS as (_ & Hlt & _). lia. }
  destruct (is_bidi A cfg (i_db s)) as [[|]| |p]; try discriminate.
  - destruct (bidi_labels A false (split_on DOT (i_db s)) (i_he s)) as [[ls he2]| |p]; try discriminate.
    + intros H. inversion H. subst. exact Hap.
    + intros H _. inversion H. reflexivity.
  - intros H. inversion H. subst. exact Hap.
Qed.

Theorem passthrough_own_result_all ff p d deny hy k1 k2 w s a : bytes d ->
  process A cfg ff p d deny hy k1 k2 w = (PPassthrough, s, a) -> Known_C11 A cfg d deny hy = false ->
  to_ascii A cfg d deny hy DIgnore = Ok (true, d).
Proof.
  intros Hb H HK.
  destruct (process_inner A cfg ff hy deny d) as [ptu bd he db ap|site] eqn:Ei.
  2:{ unfold process in H. rewrite Ei in H. discriminate. }
  destruct (inner_facts A cfg ff hy deny d _ _ _ _ _ Hb Ei) as [(-> & -> & -> & Hne)|[(-> & -> & Ha)|[HB Hm]]].
  - exfalso. unfold process in H. rewrite Ei in H.
    destruct (0 =? len d) eqn:E; [apply len_nil_iff in E; contradiction|]. cbn [andb] in H. discriminate.
  - assert (Ht : process_inner A cfg true hy deny d = IRes (len d) bd false db ap).
    { destruct ff; [exact Ei|]. apply ff_of_mark_noother; [exact Ei|].
      rewrite (mark_all_prefix_ap hy deny d _ _ _ _ _ Ei eq_refl). intros []. }
    unfold to_ascii, process. rewrite Ht, N.eqb_refl, andb_false_r. reflexivity.
  - assert (Hne : ptu <> len d) by (destruct HB as [Hlt _]; lia).
    assert (Hhe : he = false).
    { destruct he; [|reflexivity]. destruct ff.
      - exfalso. unfold process in H. rewrite Ei in H.
        replace (ptu =? len d) with false in H by (symmetry; apply N.eqb_neq; exact Hne). cbn [andb] in H. discriminate.
      - exfalso. pose proof (mark_err_status A cfg d deny hy p k1 k2 w _ _ _ _ Ei HK) as HX. rewrite H in HX. exact HX. }
    subst he.
    pose proof (passthrough_stays A cfg ff p d deny hy k1 k2 w s a _ _ _ _ _ Ei HB (andb_false_r ff) H) as Es.
    pose proof HB as (_ & Hlen & _ & _ & _ & P & rl & Hd & HP & Hcv & _).
    pose proof (stays_below _ is_ascii_l (uni1_false_nonascii ff p (tld_of db) bd) _ _ Es) as Es2.
    assert (Ht : process_inner A cfg true hy deny d = IRes ptu bd false db ap).
    { apply ff_of_mark_noother; [exact Hm|]. exact (stays_no_other _ _ _ Hlen Es). }
    exact (to_ascii_walk_t A cfg d deny hy _ _ _ _ Ht HB P rl Hd HP Hcv Es2).
Qed.
End Pass.

(* C11_passthrough_statement for EVERY adapter *)
Lemma c11_passthrough_all : forall A cfg, C11_passthrough_statement A cfg.
Proof.
  intros A cfg ff p d deny hy k1 k2 w s a Hb Hv H Hk. split.
  - exact (passthrough_ascii_input A cfg ff p d deny hy k1 k2 w s a Hb H).
  - exact (passthrough_own_result_all A cfg ff p d deny hy k1 k2 w s a Hb H Hk).
Qed.
