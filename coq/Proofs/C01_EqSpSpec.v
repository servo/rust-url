(* Proofs/C01_EqSpSpec.v - specification side of the C01 equivalence for special non-file schemes
   (http, https, ws, wss, ftp) without base: what the special authority slashes / special authority
   ignore slashes, authority, host, port, path start and path states of Spec/Whatwg.v compute on ANY
   text after "scheme:", as functions of that text (`sauth_s`), and the proof that the state machine
   computes exactly that.  Differences to the non-special case (Proofs/C01_EqAuthSpec.v): '\' ends the
   authority and separates path segments, an empty host is a failure, a port equal to the default
   port of the scheme is dropped, the path state is always entered (the path is never empty), the
   query uses the special-query percent-encode set. *)
From RU Require Import Base.Prelude Spec.Whatwg Proofs.C01_EqRun Proofs.C01_EqPathSpec Proofs.C01_EqAuthSpec.

(* the text after "scheme:", cut as the states of the Standard cut it *)
Definition is_sl (c : N) : bool := (c =? 47) || (c =? 92).                  (* '/' or '\' *)
(* end of the authority for a special URL: '/', '?', '#', '\' (or the end of the text) *)
Definition is_aes (c : N) : bool := is_ae c || (c =? 92).
Definition starts_aes (t : list N) : bool := match t with [] => true | c :: _ => is_aes c end.

(* the slashes and backslashes the two special-authority states skip *)
Fixpoint take_sl (t : list N) : list N :=
  match t with [] => [] | c :: r => if is_sl c then c :: take_sl r else [] end.
Definition drop_sl (t : list N) : list N := drop_leading is_sl t.

Fixpoint as_part (t : list N) : list N :=
  match t with [] => [] | c :: r => if is_aes c then [] else c :: as_part r end.
Fixpoint as_rest (t : list N) : list N :=
  match t with [] => [] | c :: r => if is_aes c then t else as_rest r end.

(* (text in front of the last '@' of the authority, if any; text after it up to the end of the input) *)
Definition after_at_s (T : list N) : option (list N) * list N :=
  match last_at (as_part T) with
  | Some (w, h) => (Some w, h ++ as_rest T)
  | None => (None, T)
  end.

(* host state: up to the first ':' outside brackets or the end of the authority *)
Definition hss_stop (br : bool) (c : N) : bool := ((c =? 58) && negb br) || is_aes c.
Fixpoint hss_host (br : bool) (t : list N) : list N :=
  match t with
  | [] => []
  | c :: r => if hss_stop br c then [] else c :: hss_host (br_next br c) r
  end.
Fixpoint hss_rest (br : bool) (t : list N) : list N :=
  match t with
  | [] => []
  | c :: r => if hss_stop br c then t else hss_rest (br_next br c) r
  end.

(* path state of a special URL: '/' and '\' separate segments *)
Fixpoint spath_s (t : list N) (P : list (list N)) (B : list N) : list (list N) * list N :=
  match t with
  | [] => (fin P B false, [])
  | c :: r => if is_sl c then spath_s r (fin P B true) []
              else if is_qh c then (fin P B false, t)
              else spath_s r P (B ++ utf8_percent_encode_cp in_path_set c)
  end.

Lemma spath_s_is_g t P B : spath_s t P B = spath_g is_sl fin t P B.
Proof. reflexivity. Qed.

Lemma spath_s_rest_head t : forall P B, match snd (spath_s t P B) with [] => True | c :: _ => is_qh c = true end.
Proof. intros P B. rewrite spath_s_is_g. apply spath_g_rest_head. Qed.

(* path start state and what follows it, on a text that is empty or starts with '/', '\', '?' or '#':
   one leading '/' or '\' is consumed, the path state runs on the rest *)
Definition path_text_s (X : list N) : list N :=
  match X with c :: r => if is_sl c then r else X | [] => [] end.
Definition sauth_tail_s (u : spec_url) (X : list N) : spec_url :=
  tail_url (set_path u (SPList (fst (spath_s (path_text_s X) [] [])))) (snd (spath_s (path_text_s X) [] [])).

Section SAuthS.
Variable shp : bool -> list N -> option spec_host.

(* port state with digits `buf` already in the buffer, on the text PR; None = failure *)
Definition sauth_port_g (u : spec_url) (buf PR : list N) : option spec_url :=
  let d := buf ++ digits_of PR in
  let X := after_digits PR in
  if negb (starts_aes X) then None
  else if is_nil d then Some (sauth_tail_s u X)
  else if 65535 <? decimal_value d then None
  else Some (sauth_tail_s (set_port u (if port_is_default (su_scheme u) (decimal_value d) then None
                                       else Some (decimal_value d))) X).

(* host state with `buf` already in the buffer (insideBrackets = br), on the text t *)
Definition sauth_host_g (u : spec_url) (buf : list N) (br : bool) (t : list N) : option spec_url :=
  let Hh := buf ++ hss_host br t in
  if is_nil Hh then None else
  match host_parsing shp false Hh with
  | None => None
  | Some sh =>
      match port_split (hss_rest br t) with
      | Some PR => sauth_port_g (set_host u (Some sh)) [] PR
      | None => Some (sauth_tail_s (set_host u (Some sh)) (hss_rest br t))
      end
  end.

(* the text T after "scheme:" and the slashes; None = failure *)
Definition sauth_s (sch T : list N) : option spec_url :=
  sauth_host_g (cred_of (fst (after_at_s T)) (set_scheme empty_url sch)) [] false (snd (after_at_s T)).

End SAuthS.

(* the pieces of a text the class recogniser looks at *)
(* the string the host parser is applied to (if the states get that far) *)
Definition sp_host_text (T : list N) : list N := hss_host false (snd (after_at_s T)).
(* the text the path start state sees (if the states get that far) *)
Definition sp_path_text (T : list N) : list N :=
  match port_split (hss_rest false (snd (after_at_s T))) with
  | Some PR => after_digits PR
  | None => hss_rest false (snd (after_at_s T))
  end.

(* elementary facts about the cuts *)
Lemma take_drop_sl t : take_sl t ++ drop_sl t = t.
Proof.
  induction t as [|c r IH]; [reflexivity|]. unfold drop_sl in *. cbn [take_sl drop_leading].
  destruct (is_sl c); [|reflexivity]. cbn [app]. rewrite IH. reflexivity.
Qed.

Lemma take_sl_all t : forallb is_sl (take_sl t) = true.
Proof. induction t as [|c r IH]; [reflexivity|]. cbn [take_sl]. destruct (is_sl c) eqn:E; [|reflexivity]. cbn [forallb]. rewrite E, IH. reflexivity. Qed.

Lemma drop_sl_head t : match drop_sl t with [] => True | c :: _ => is_sl c = false end.
Proof. induction t as [|c r IH]; [exact I|]. unfold drop_sl in *. cbn [drop_leading]. destruct (is_sl c) eqn:E; [exact IH | exact E]. Qed.

Lemma as_part_rest t : as_part t ++ as_rest t = t.
Proof. exact (cut_part_rest is_aes t). Qed.

Lemma as_rest_starts t : starts_aes (as_rest t) = true.
Proof. exact (cut_rest_starts is_aes t). Qed.

Lemma as_part_no_ae t : forallb (fun c => negb (is_aes c)) (as_part t) = true.
Proof. exact (cut_part_no_stop is_aes t). Qed.

Lemma starts_aes_app h t : forallb (fun c => negb (is_aes c)) h = true -> starts_aes t = true ->
  starts_aes (h ++ t) = is_nil h.
Proof. exact (cut_starts_app is_aes h t). Qed.

Lemma is_aes_not_at c : is_aes c = true -> (c =? 64) = false.
Proof. unfold is_aes, is_ae. intros H. destruct (c =? 64) eqn:E; [|reflexivity]. apply N.eqb_eq in E. subst c. discriminate. Qed.

Lemma hss_rest_head t : forall br, match hss_rest br t with
                                   | [] => True
                                   | c :: _ => is_aes c = true \/ (c =? 58) = true
                                   end.
Proof. exact (host_rest_head is_aes t). Qed.

Lemma hss_host_rest t : forall br, hss_host br t ++ hss_rest br t = t.
Proof. exact (host_part_rest is_aes t). Qed.

(* the authority state as a function of the text: `auth_run is_aes` *)
(* at the top: buffer empty, no '@' seen *)
Lemma sa_run_s_top T u0 :
  auth_run is_aes T [] false false u0 =
  match last_at (as_part T) with
  | Some (w, h) => if is_nil h then None else Some (h, snd (authority_credentials w false u0))
  | None => Some (as_part T, u0)
  end.
Proof. exact (auth_run_top is_aes eq_refl T u0). Qed.

Section SpRuns.
Variable hp : bool -> list N -> option spec_host.
Variable input : list N.
Variable base : option spec_url.          (* not consulted by the states of this section *)

Notation RunsN := (Runs hp input base).
Notation stepN := (step hp input base None).
Notation LEN := (Z.of_nat (length input)).

(* the loop started on m ends with BDone su (o = Some su) or with a failure (o = None) *)
Definition out_is (m : machine) (o : option spec_url) : Prop :=
  match o with
  | Some su => RunsN m (BDone su)
  | None => exists uf, RunsN m (BFailure uf)
  end.

Lemma out_next st pre c r buf a b pw u st' buf' a' b' pw' u' o :
  input = pre ++ c :: r ->
  stepN (at_pos st pre buf a b pw u) = SCont (mkM st' (Z.of_nat (length pre)) buf' a' b' pw' u') ->
  out_is (at_pos st' (pre ++ [c]) buf' a' b' pw' u') o -> out_is (at_pos st pre buf a b pw u) o.
Proof.
  intros Hin E H. destruct o as [su|]; cbn [out_is] in *.
  - eapply runs_step_next; [exact Hin | exact E | exact H].
  - destruct H as [uf K]. exists uf. eapply runs_step_next; [exact Hin | exact E | exact K].
Qed.

Lemma out_back st pre t buf a b pw u st' buf' a' b' pw' u' o :
  input = pre ++ t ->
  stepN (at_pos st pre buf a b pw u) = SCont (mkM st' (Z.of_nat (length pre) - 1)%Z buf' a' b' pw' u') ->
  out_is (at_pos st' pre buf' a' b' pw' u') o -> out_is (at_pos st pre buf a b pw u) o.
Proof.
  intros Hin E H. destruct o as [su|]; cbn [out_is] in *.
  - eapply runs_step_back; [exact Hin | exact E | exact H].
  - destruct H as [uf K]. exists uf. eapply runs_step_back; [exact Hin | exact E | exact K].
Qed.

Lemma out_fail m u : stepN m = SFailure u -> out_is m None.
Proof. intros E. exists u. apply R_fail. exact E. Qed.

Lemma authority_end_sp u c : is_special u = true -> is_authority_end u (Some c) = is_aes c.
Proof.
  intros H. unfold is_authority_end, is_aes, is_ae. rewrite H. cbn [is_eof cis andb orb]. reflexivity.
Qed.

(* path state *)
Theorem runs_path_s : forall t pre B a b pw u P,
  input = pre ++ t -> su_path u = SPList P -> is_special u = true ->
  list_eqb (su_scheme u) str_file = false ->
  RunsN (at_pos StPath pre B a b pw u)
        (BDone (tail_url (set_path u (SPList (fst (spath_s t P B)))) (snd (spath_s t P B)))).
Proof.
  intros t pre B a b pw u P. rewrite spath_s_is_g.
  apply (runs_path_g hp input base true false); [reflexivity | exact (path_seg_update)].
Qed.

(* path start state (special URL, no state override) *)
(* a special URL: the path start state skips one '/' or '\' and hands over to the path state *)
Lemma runs_path_start_sp X pre a b pw u res : input = pre ++ X -> is_special u = true ->
  (forall pre', input = pre' ++ path_text_s X -> RunsN (at_pos StPath pre' [] a b pw u) res) ->
  RunsN (at_pos StPathStart pre [] a b pw u) res.
Proof.
  intros Hin Hsp K. destruct X as [|c r]; cbn [path_text_s] in K.
  - eapply runs_step_back with (st' := StPath) (buf' := []) (u' := u); [exact Hin | | exact (K pre Hin)].
    rewrite (step_unfold _ _ _ _ _ _ _ _ _ _ _ Hin). cbn zeta. cbn [hd_error]. unfold st_path_start.
    cbn [m_url at_pos]. rewrite Hsp. reflexivity.
  - destruct (is_sl c) eqn:Esl.
    + eapply runs_step_next with (st' := StPath) (buf' := []) (u' := u);
        [exact Hin | | exact (K (pre ++ [c]) (snoc_split _ _ _ _ Hin))].
      rewrite (step_unfold _ _ _ _ _ _ _ _ _ _ _ Hin). cbn zeta. cbn [hd_error]. unfold st_path_start.
      cbn [m_url at_pos cis]. rewrite Hsp. unfold is_sl in Esl.
      destruct (c =? 47); [reflexivity|]. cbn [orb] in Esl. rewrite Esl. reflexivity.
    + eapply runs_step_back with (st' := StPath) (buf' := []) (u' := u); [exact Hin | | exact (K pre Hin)].
      rewrite (step_unfold _ _ _ _ _ _ _ _ _ _ _ Hin). cbn zeta. cbn [hd_error]. unfold st_path_start.
      cbn [m_url at_pos cis]. rewrite Hsp. unfold is_sl in Esl. apply orb_false_iff in Esl. destruct Esl as [-> ->].
      reflexivity.
Qed.

Theorem runs_path_start_s X : forall pre a b pw u,
  input = pre ++ X -> su_path u = SPList [] -> is_special u = true -> list_eqb (su_scheme u) str_file = false ->
  RunsN (at_pos StPathStart pre [] a b pw u) (BDone (sauth_tail_s u X)).
Proof.
  intros pre a b pw u Hin HP Hsp Hf. apply (runs_path_start_sp X pre a b pw u _ Hin Hsp).
  intros pre' Hin'. exact (runs_path_s _ pre' [] a b pw u [] Hin' HP Hsp Hf).
Qed.

(* port state *)
Lemma digit_not_aes c : is_digit c = true -> is_aes c = false.
Proof. unfold is_digit, is_aes, is_ae. intros H. lia. Qed.

Theorem runs_port_s t : forall pre buf a b pw u,
  input = pre ++ t -> is_special u = true -> su_path u = SPList [] -> list_eqb (su_scheme u) str_file = false ->
  out_is (at_pos StPort pre buf a b pw u) (sauth_port_g u buf t).
Proof.
  (* the digits end at an end of the authority (or of the input) *)
  assert (forall X pre buf a b pw u, input = pre ++ X -> starts_aes X = true ->
            is_special u = true -> su_path u = SPList [] -> list_eqb (su_scheme u) str_file = false ->
            (forall c r, X = c :: r -> is_digit c = false) ->
            out_is (at_pos StPort pre buf a b pw u)
                   (if is_nil buf then Some (sauth_tail_s u X)
                    else if 65535 <? decimal_value buf then None
                    else Some (sauth_tail_s (set_port u (if port_is_default (su_scheme u) (decimal_value buf) then None
                                                         else Some (decimal_value buf))) X))) as Hend.
  { intros X pre buf a b pw u Hin Hx Hsp HP Hf Hnd.
    assert (cpred is_digit (hd_error X) = false) as Ecd.
    { destruct X as [|c r]; [reflexivity|]. cbn [hd_error cpred]. exact (Hnd c r eq_refl). }
    assert (is_authority_end u (hd_error X) = true) as Eend.
    { destruct X as [|c r]; [reflexivity|]. cbn [hd_error]. rewrite (authority_end_sp u c Hsp). exact Hx. }
    destruct buf as [|d0 dr] eqn:Eb; cbn [is_nil].
    - cbn [out_is]. eapply runs_step_back with (st' := StPathStart) (buf' := []) (u' := u); [exact Hin | |].
      + rewrite (step_unfold _ _ _ _ _ _ _ _ _ _ _ Hin). cbn zeta. unfold st_port.
        cbn [m_url m_buf at_pos]. rewrite Ecd, Eend. cbn [orb list_eqb negb has_ov opt_is_some]. reflexivity.
      + apply runs_path_start_s; assumption.
    - rewrite <- Eb. destruct (65535 <? decimal_value buf) eqn:Eov.
      + apply (out_fail _ u). rewrite (step_unfold _ _ _ _ _ _ _ _ _ _ _ Hin). cbn zeta. unfold st_port.
        cbn [m_url m_buf at_pos]. rewrite Ecd, Eend. cbn [orb]. rewrite Eb at 1. cbn [list_eqb negb].
        rewrite Eov. reflexivity.
      + cbn [out_is].
        eapply runs_step_back with (st' := StPathStart) (buf' := [])
          (u' := set_port u (if port_is_default (su_scheme u) (decimal_value buf) then None else Some (decimal_value buf)));
          [exact Hin | |].
        * rewrite (step_unfold _ _ _ _ _ _ _ _ _ _ _ Hin). cbn zeta. unfold st_port.
          cbn [m_url m_buf at_pos]. rewrite Ecd, Eend. cbn [orb]. rewrite Eb at 1. cbn [list_eqb negb].
          rewrite Eov. cbn [has_ov opt_is_some]. reflexivity.
        * apply runs_path_start_s; assumption. }
  induction t as [|c r IH]; intros pre buf a b pw u Hin Hsp HP Hf; unfold sauth_port_g.
  - cbn [digits_of after_digits starts_aes negb]. cbv zeta. rewrite app_nil_r.
    apply (Hend [] pre buf a b pw u Hin eq_refl Hsp HP Hf). intros c r H. discriminate H.
  - cbn [digits_of after_digits]. destruct (is_digit c) eqn:Ed.
    + cbv zeta. pose proof (IH (pre ++ [c]) (buf ++ [c]) a b pw u (snoc_split _ _ _ _ Hin) Hsp HP Hf) as IH'.
      unfold sauth_port_g in IH'. cbv zeta in IH'. rewrite <- app_assoc in IH'. cbn [app] in IH'.
      eapply out_next with (st' := StPort) (buf' := buf ++ [c]) (u' := u); [exact Hin | | exact IH'].
      rewrite (step_unfold _ _ _ _ _ _ _ _ _ _ _ Hin). cbn zeta. cbn [hd_error]. unfold st_port.
      cbn [cpred]. rewrite Ed. reflexivity.
    + cbv zeta. rewrite app_nil_r. cbn [starts_aes]. destruct (is_aes c) eqn:Eae; cbn [negb].
      * apply (Hend (c :: r) pre buf a b pw u Hin Eae Hsp HP Hf). intros c' r' H. inversion H; subst. exact Ed.
      * apply (out_fail _ u). rewrite (step_unfold _ _ _ _ _ _ _ _ _ _ _ Hin). cbn zeta. cbn [hd_error]. unfold st_port.
        cbn [cpred m_url at_pos]. rewrite Ed, (authority_end_sp u c Hsp), Eae. reflexivity.
Qed.

(* host state *)
Theorem runs_host_s t : forall pre buf br a pw u,
  input = pre ++ t -> is_special u = true -> su_path u = SPList [] -> list_eqb (su_scheme u) str_file = false ->
  out_is (at_pos StHost pre buf a br pw u) (sauth_host_g hp u buf br t).
Proof.
  (* the host ends at an end of the authority (or of the input) *)
  assert (forall X pre buf br a pw u, input = pre ++ X -> starts_aes X = true ->
            is_special u = true -> su_path u = SPList [] -> list_eqb (su_scheme u) str_file = false ->
            out_is (at_pos StHost pre buf a br pw u)
                   (if is_nil buf then None
                    else match host_parsing hp false buf with
                         | None => None
                         | Some sh => Some (sauth_tail_s (set_host u (Some sh)) X)
                         end)) as Hend.
  { intros X pre buf br a pw u Hin Hx Hsp HP Hf.
    assert (is_authority_end u (hd_error X) = true) as Eend.
    { destruct X as [|c r]; [reflexivity|]. cbn [hd_error]. rewrite (authority_end_sp u c Hsp). exact Hx. }
    assert ((cis (hd_error X) 58 && negb br) = false) as E58.
    { destruct X as [|c r]; [reflexivity|]. cbn [hd_error cis]. cbn [starts_aes] in Hx.
      destruct (c =? 58) eqn:E; [|reflexivity]. apply N.eqb_eq in E. subst c. discriminate. }
    destruct (is_nil buf) eqn:Enil.
    - apply (out_fail _ u). rewrite (step_unfold _ _ _ _ _ _ _ _ _ _ _ Hin). cbn zeta. unfold st_host.
      cbn [has_ov opt_is_some andb m_url m_buf m_br at_pos]. rewrite E58, Eend, Hsp. cbn [andb].
      rewrite list_eqb_nil, Enil. reflexivity.
    - destruct (host_parsing hp false buf) as [sh|] eqn:Ehp.
      + cbn [out_is].
        eapply runs_step_back with (st' := StPathStart) (buf' := []) (u' := set_host u (Some sh)); [exact Hin | |].
        * rewrite (step_unfold _ _ _ _ _ _ _ _ _ _ _ Hin). cbn zeta. unfold st_host.
          cbn [has_ov opt_is_some andb m_url m_buf m_br at_pos]. rewrite E58, Eend, Hsp. cbn [andb negb].
          rewrite list_eqb_nil, Enil. rewrite Ehp. reflexivity.
        * apply runs_path_start_s; assumption.
      + apply (out_fail _ u). rewrite (step_unfold _ _ _ _ _ _ _ _ _ _ _ Hin). cbn zeta. unfold st_host.
        cbn [has_ov opt_is_some andb m_url m_buf m_br at_pos]. rewrite E58, Eend, Hsp. cbn [andb negb].
        rewrite list_eqb_nil, Enil. rewrite Ehp. reflexivity. }
  induction t as [|c r IH]; intros pre buf br a pw u Hin Hsp HP Hf; unfold sauth_host_g.
  - cbn [hss_host hss_rest port_split]. cbv zeta. rewrite app_nil_r.
    exact (Hend [] pre buf br a pw u Hin eq_refl Hsp HP Hf).
  - cbn [hss_host hss_rest]. destruct (hss_stop br c) eqn:Estop.
    + cbv zeta. rewrite app_nil_r. cbn [port_split]. destruct (c =? 58) eqn:E58.
      * (* ':' outside brackets: the port follows *)
        assert (negb br = true) as Ebr.
        { unfold hss_stop in Estop. rewrite E58 in Estop. apply N.eqb_eq in E58. subst c.
          destruct br; [discriminate Estop | reflexivity]. }
        destruct (is_nil buf) eqn:Enil.
        -- apply (out_fail _ u). rewrite (step_unfold _ _ _ _ _ _ _ _ _ _ _ Hin). cbn zeta. cbn [hd_error]. unfold st_host.
           cbn [has_ov opt_is_some andb m_url m_buf m_br at_pos cis]. rewrite E58, Ebr. cbn [andb].
           rewrite list_eqb_nil, Enil. reflexivity.
        -- destruct (host_parsing hp false buf) as [sh|] eqn:Ehp.
           ++ eapply out_next with (st' := StPort) (buf' := []) (u' := set_host u (Some sh)); [exact Hin | |].
              ** rewrite (step_unfold _ _ _ _ _ _ _ _ _ _ _ Hin). cbn zeta. cbn [hd_error]. unfold st_host.
                 cbn [has_ov opt_is_some andb m_url m_buf m_br at_pos cis]. rewrite E58, Ebr. cbn [andb].
                 rewrite list_eqb_nil, Enil. unfold ov_is. rewrite Hsp. cbn [negb]. rewrite Ehp. reflexivity.
              ** exact (runs_port_s r (pre ++ [c]) [] a br pw (set_host u (Some sh)) (snoc_split _ _ _ _ Hin) Hsp HP Hf).
           ++ apply (out_fail _ u). rewrite (step_unfold _ _ _ _ _ _ _ _ _ _ _ Hin). cbn zeta. cbn [hd_error]. unfold st_host.
              cbn [has_ov opt_is_some andb m_url m_buf m_br at_pos cis]. rewrite E58, Ebr. cbn [andb].
              rewrite list_eqb_nil, Enil. unfold ov_is. rewrite Hsp. cbn [negb]. rewrite Ehp. reflexivity.
      * (* end of the authority *)
        assert (is_aes c = true) as Eae.
        { unfold hss_stop in Estop. rewrite E58 in Estop. exact Estop. }
        exact (Hend (c :: r) pre buf br a pw u Hin Eae Hsp HP Hf).
    + (* the code point goes onto the buffer *)
      cbv zeta.
      pose proof (IH (pre ++ [c]) (buf ++ [c]) (br_next br c) a pw u (snoc_split _ _ _ _ Hin) Hsp HP Hf) as IH'.
      unfold sauth_host_g in IH'. cbv zeta in IH'. rewrite <- app_assoc in IH'. cbn [app] in IH'.
      eapply out_next with (st' := StHost) (buf' := buf ++ [c]) (b' := br_next br c) (u' := u); [exact Hin | | exact IH'].
      rewrite (step_unfold _ _ _ _ _ _ _ _ _ _ _ Hin). cbn zeta. cbn [hd_error]. unfold st_host.
      cbn [has_ov opt_is_some andb m_url m_buf m_br at_pos cis].
      unfold hss_stop in Estop. apply orb_false_iff in Estop. destruct Estop as [E1 E2].
      rewrite E1, (authority_end_sp u c Hsp), E2. unfold br_next, set_br, push_buf, set_buf.
      cbn [m_state m_ptr m_buf m_at m_br m_pw m_url].
      destruct (c =? 91) eqn:E91.
      * assert ((c =? 93) = false) as -> by lia. reflexivity.
      * destruct (c =? 93); reflexivity.
Qed.

(* authority state *)
Lemma runs_auth_s t : forall pre buf a pw u,
  input = (pre ++ buf) ++ t -> is_special u = true ->
  match auth_run is_aes t buf a pw u with
  | Some (h, u') =>
      forall o, (forall a' p', out_is (at_pos StHost (firstn (length input - length (h ++ as_rest t)) input) [] a' false p' u') o) ->
      out_is (at_pos StAuthority (pre ++ buf) buf a false pw u) o
  | None => out_is (at_pos StAuthority (pre ++ buf) buf a false pw u) None
  end.
Proof.
  intros pre buf a pw u Hin Hsp.
  pose proof (runs_auth_cut hp input base is_aes true authority_end_sp t pre buf a pw u Hin Hsp) as H.
  change (cut_rest is_aes) with as_rest in H.
  destruct (auth_run is_aes t buf a pw u) as [[h u']|]; [|exact H].
  destruct H as (a' & p' & K). intros o Ho. specialize (Ho a' p').
  destruct o as [su|]; cbn [out_is] in *; [exact (K _ Ho)|].
  destruct Ho as [uf Ho]. exists uf. exact (K _ Ho).
Qed.

(* authority state from its start: `sauth_s` *)
Theorem runs_authority_s pre T sch :
  input = pre ++ T -> is_special_scheme sch = true -> list_eqb sch str_file = false ->
  out_is (at_pos StAuthority pre [] false false false (set_scheme empty_url sch)) (sauth_s hp sch T).
Proof.
  intros Hin Hspe Hnf.
  set (u0 := set_scheme empty_url sch).
  assert (is_special u0 = true) as Hsp by exact Hspe.
  assert (input = (pre ++ []) ++ T) as Hin0 by (rewrite app_nil_r; exact Hin).
  pose proof (runs_auth_s T pre [] false false u0) as RA. rewrite app_nil_r in RA.
  rewrite sa_run_s_top in RA. unfold sauth_s, after_at_s. fold u0.
  (* what the host state needs of the URL after the credentials *)
  assert (forall W, let u1 := cred_of W u0 in
            is_special u1 = true /\ su_path u1 = SPList [] /\ list_eqb (su_scheme u1) str_file = false) as Hu1.
  { intros [w|]; cbv zeta; cbn [cred_of].
    - unfold is_special. rewrite ac_scheme. destruct (ac_rest w false u0) as (_ & _ & Hp & _).
      cbv zeta in Hp. rewrite Hp. cbn [u0 su_scheme set_scheme su_path empty_url].
      repeat split; [exact Hspe | exact Hnf].
    - repeat split; [exact Hspe | exact Hnf]. }
  destruct (last_at (as_part T)) as [[w h]|] eqn:Ela; cbn [fst snd].
  - (* credentials *)
    pose proof (as_part_no_ae T) as Hnae. pose proof (last_at_split _ _ _ Ela) as Esp.
    assert (forallb (fun c => negb (is_aes c)) h = true) as Hh.
    { rewrite Esp in Hnae. rewrite forallb_app in Hnae. apply andb_true_iff in Hnae. destruct Hnae as [_ Hn].
      cbn [forallb] in Hn. apply andb_true_iff in Hn. tauto. }
    destruct (is_nil h) eqn:Enil.
    + (* '@' directly in front of the end of the authority: both the authority state and `sauth_s` fail *)
      destruct h as [|x y]; [|discriminate Enil]. cbn [app].
      assert (sauth_host_g hp (cred_of (Some w) u0) [] false (as_rest T) = None) as ->.
      { unfold sauth_host_g. cbv zeta. cbn [app]. pose proof (as_rest_starts T) as Hs.
        destruct (as_rest T) as [|c r]; [reflexivity|]. cbn [starts_aes] in Hs. cbn [hss_host]. unfold hss_stop.
        rewrite Hs, orb_true_r. reflexivity. }
      exact (RA Hin Hsp).
    + destruct (Hu1 (Some w)) as (H1 & H3 & H4). cbv zeta in H1, H3, H4.
      assert (input = firstn (length input - length (h ++ as_rest T)) input ++ h ++ as_rest T) as Hin1.
      { assert (exists p, input = p ++ h ++ as_rest T) as [p Hp].
        { exists (pre ++ w ++ [64]). rewrite Hin. rewrite <- (as_part_rest T) at 1. rewrite Esp.
          rewrite <- !app_assoc. reflexivity. }
        rewrite Hp. rewrite firstn_len_sub. reflexivity. }
      apply (RA Hin Hsp). intros a' p'.
      exact (runs_host_s (h ++ as_rest T) _ [] false a' p' (cred_of (Some w) u0) Hin1 H1 H3 H4).
  - (* no '@' *)
    destruct (Hu1 None) as (H1 & H3 & H4). cbv zeta in H1, H3, H4. cbn [cred_of] in *.
    assert (input = firstn (length input - length (as_part T ++ as_rest T)) input ++ as_part T ++ as_rest T) as Hin1.
    { rewrite as_part_rest. rewrite Hin. rewrite firstn_len_sub. reflexivity. }
    apply (RA Hin Hsp). intros a' p'.
    pose proof (runs_host_s (as_part T ++ as_rest T) _ [] false a' p' u0 Hin1 H1 H3 H4) as RH.
    rewrite as_part_rest in RH at 2. exact RH.
Qed.

(* special authority slashes / special authority ignore slashes states *)
Lemma runs_ignore_slashes sl : forall pre T a b pw u res,
  input = pre ++ sl ++ T -> forallb is_sl sl = true ->
  match T with [] => True | c :: _ => is_sl c = false end ->
  RunsN (at_pos StAuthority (pre ++ sl) [] a b pw u) res ->
  RunsN (at_pos StSpecialAuthorityIgnoreSlashes pre [] a b pw u) res.
Proof.
  induction sl as [|c r IH]; intros pre T a b pw u res Hin Hsl HT HR.
  - cbn [app] in Hin. rewrite app_nil_r in HR.
    eapply runs_step_back with (st' := StAuthority) (buf' := []) (u' := u); [exact Hin | | exact HR].
    rewrite (step_unfold _ _ _ _ _ _ _ _ _ _ _ Hin). cbn zeta. unfold st_special_authority_ignore_slashes.
    destruct T as [|c r]; [reflexivity|]. cbn [hd_error cis]. unfold is_sl in HT. apply orb_false_iff in HT.
    destruct HT as [-> ->]. reflexivity.
  - cbn [forallb] in Hsl. apply andb_true_iff in Hsl. destruct Hsl as [Hc Hr]. cbn [app] in Hin.
    eapply runs_step_next with (st' := StSpecialAuthorityIgnoreSlashes) (buf' := []) (u' := u); [exact Hin | |].
    + rewrite (step_unfold _ _ _ _ _ _ _ _ _ _ _ Hin). cbn zeta. cbn [hd_error]. unfold st_special_authority_ignore_slashes.
      cbn [cis]. unfold is_sl in Hc. destruct (c =? 47); [reflexivity|]. cbn [orb] in Hc. rewrite Hc. reflexivity.
    + apply (IH (pre ++ [c]) T a b pw u res).
      * rewrite Hin, <- app_assoc. reflexivity.
      * exact Hr.
      * exact HT.
      * rewrite <- app_assoc. exact HR.
Qed.

Lemma runs_special_slashes R pre a b pw u res :
  input = pre ++ R ->
  RunsN (at_pos StAuthority (pre ++ take_sl R) [] a b pw u) res ->
  RunsN (at_pos StSpecialAuthoritySlashes pre [] a b pw u) res.
Proof.
  intros Hin HR.
  assert (input = pre ++ take_sl R ++ drop_sl R) as Hin2 by (rewrite take_drop_sl; exact Hin).
  destruct ((cis (hd_error R) 47) && starts_with_cp 47 (tl R)) eqn:E.
  - (* "//": both are skipped at once *)
    destruct R as [|c1 [|c2 R']]; cbn [hd_error tl cis starts_with_cp] in E; try rewrite andb_false_r in E; try discriminate E.
    apply andb_true_iff in E. destruct E as [E1 E2]. apply N.eqb_eq in E1, E2. subst c1 c2.
    eapply R_next with (m' := mkM StSpecialAuthorityIgnoreSlashes (Z.of_nat (length pre) + 1)%Z [] a b pw u).
    + rewrite (step_unfold _ _ _ _ _ _ _ _ _ _ _ Hin). cbn zeta. cbn [hd_error tl]. unfold st_special_authority_slashes.
      cbn [cis starts_with_cp]. replace (47 =? 47) with true by reflexivity. reflexivity.
    + cbn [m_ptr]. rewrite (len_split hp _ _ _ Hin). cbn [length]. lia.
    + unfold inc_ptr, set_ptr. cbn [m_ptr m_state m_buf m_at m_br m_pw m_url].
      replace (Z.of_nat (length pre) + 1 + 1)%Z with (Z.of_nat (length (pre ++ [47; 47]))) by (rewrite app_length; cbn [length]; lia).
      change (mkM StSpecialAuthorityIgnoreSlashes (Z.of_nat (length (pre ++ [47; 47]))) [] a b pw u)
        with (at_pos StSpecialAuthorityIgnoreSlashes (pre ++ [47; 47]) [] a b pw u).
      apply (runs_ignore_slashes (take_sl R') (pre ++ [47; 47]) (drop_sl R') a b pw u res).
      * rewrite take_drop_sl. rewrite Hin, <- app_assoc. reflexivity.
      * apply take_sl_all.
      * apply drop_sl_head.
      * rewrite <- app_assoc. exact HR.
  - eapply runs_step_back with (st' := StSpecialAuthorityIgnoreSlashes) (buf' := []) (u' := u); [exact Hin | |].
    + rewrite (step_unfold _ _ _ _ _ _ _ _ _ _ _ Hin). cbn zeta. unfold st_special_authority_slashes. rewrite E. reflexivity.
    + apply (runs_ignore_slashes (take_sl R) pre (drop_sl R) a b pw u res Hin2 (take_sl_all R) (drop_sl_head R) HR).
Qed.

(* the run at the ':' for a special non-file scheme, no base or a base with another scheme: special
   authority slashes state *)
Theorem runs_scheme_colon_special pre sch rest res :
  input = pre ++ 58 :: rest -> is_special_scheme sch = true -> list_eqb sch str_file = false ->
  match base with Some b => list_eqb (su_scheme b) sch | None => false end = false ->
  RunsN (at_pos StSpecialAuthoritySlashes (pre ++ [58]) [] false false false (set_scheme empty_url sch)) res ->
  RunsN (at_pos StScheme pre sch false false false empty_url) res.
Proof.
  intros Hin Hsp Hf Hb HR.
  eapply runs_step_next with (st' := StSpecialAuthoritySlashes) (buf' := []); [exact Hin | | exact HR].
  rewrite (step_unfold _ _ _ _ _ _ _ _ _ _ _ Hin). cbn zeta. cbn [hd_error tl]. unfold st_scheme.
  assert (is_scheme_cp 58 = false) as E1 by reflexivity.
  cbn [cpred cis has_ov opt_is_some andb m_url m_buf at_pos]. rewrite E1.
  replace (58 =? 58) with true by reflexivity.
  unfold is_special. cbn [su_scheme set_scheme empty_url].
  rewrite Hf, Hsp, Hb. cbn [andb]. reflexivity.
Qed.

End SpRuns.
