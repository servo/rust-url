(* Proofs/C03_HostKindSteps.v - the host text invariant for IP hosts, part B (mutators, histories):
     KT hd u (C03_HostKind.v) is preserved by every call of the 19 mutators outside excl03:
       - a host setter either leaves the record as it was, ends in set_host_internal with some host value h - which
         writes Display(h) at the new host slice and stores hi_of_host h (set_host_internal_kt, syntactic) - or
         (set_host(None)) stores no host;
       - every other mutator keeps the stored host kind (C03_HostiKeep.v) and host_str (C03_ReachAll.keep_cases).
     No exclusion beyond excl03 is needed: F-C02-9 (set_ip_host V4 on a non-special scheme) does NOT break KT - the
     text written is the display of the address stored; what it breaks is the re-parse fixpoint (the opaque host
     parser reads that text as a domain).
   Hence inv03k hd u = inv03 u /\ KT hd u for every record of reach03j and of C02's Reachable3, and the views
   host() / host_str() / domain() / has_host() agree on each of them (views_agree). *)
From RU Require Import Proofs.C15_Ser Proofs.C15_Url.
From RU Require Import Base.Prelude Model.HostT Model.UrlRecord Model.Parser Model.Setters Model.WF Model.QueryPairs Proofs.ListN
  Proofs.C02_Reach Proofs.C02_SetHostCanon Proofs.C02_Reach3 Proofs.C03_WF Proofs.C06_List Proofs.C06_Main Proofs.C05_Enc
  Proofs.C05_Parser Proofs.C05_Setters Proofs.C03_ReachParts Proofs.C03_ReachAll Proofs.C03_Reachability Proofs.C03_AuthEnd Proofs.C05_Alphabet
  Proofs.C03_ParseFront Proofs.C03_ReachKnown Proofs.C03_ReachJoin Proofs.C03_ReachFull Proofs.C03_HostiKeep Proofs.C03_HostKind.
Open Scope N_scope.
Open Scope list_scope.

(* KT from the views *)
Lemma htext_host_str u : wf_b u = true -> host_str u = Some (if has_host u then Some (htext u) else None).
Proof. intros W. rewrite (host_str_eval u W). reflexivity. Qed.

Lemma kt_same hd u u' : wf_b u = true -> wf_b u' = true -> hosti u' = hosti u -> host_str u' = host_str u ->
  KT hd u -> KT hd u'.
Proof.
  intros W W' Ei Es K. unfold KT in *. rewrite Ei.
  assert (has_host u = true -> htext u' = htext u) as Et.
  { intros Hh. assert (has_host u' = true) as Hh' by (unfold has_host in *; rewrite Ei; exact Hh).
    rewrite (htext_host_str u W), (htext_host_str u' W'), Hh, Hh' in Es. inversion Es. reflexivity. }
  destruct (hosti u) eqn:E; try exact I; (rewrite Et; [exact K | unfold has_host; rewrite E; reflexivity]).
Qed.

(* set_host_internal writes the display of the host it stores *)
Lemma set_host_internal_kt dbg hd u h onp u' : host_start u <= nlen (ser u) ->
  set_host_internal dbg hd u h onp = Some u' -> KT hd u'.
Proof.
  intros L H. unfold set_host_internal in H. cbv zeta in H.
  ob H. ob H.
  match type of H with bindo ?e _ = _ => destruct e as [[[s1 ue] hs]|] eqn:Ex end; cbn [bindo] in H; [|discriminate H].
  assert (hs = nlen s1) as Ehs.
  { assert (nlen (truncate (ser u) (host_start u)) = host_start u) as Lt by (unfold truncate; apply nlen_nfirstn; exact L).
    destruct (negb b).
    - ob Ex. inversion Ex; subst. rewrite nlen_app, Lt. reflexivity.
    - inversion Ex; subst. symmetry. exact Lt. }
  subst hs.
  assert (exists t port', H = H /\
    (let '(s3, p') := match onp with
                      | Some np => (match np with Some p => (s1 ++ hd h) ++ [58] ++ decimal p | None => s1 ++ hd h end, np)
                      | None => (s1 ++ hd h, port u)
                      end in s3 = (s1 ++ hd h) ++ t /\ p' = port')) as (t & port' & _ & Es3).
  { destruct onp as [[p|]|]; [exists ([58] ++ decimal p), (Some p) | exists [], None | exists [], (port u)];
      (split; [reflexivity|]); cbv beta iota; split; try reflexivity; rewrite app_nil_r; reflexivity. }
  match type of H with (let '(s3, port') := ?e in _) = _ => destruct e as [s3 pt'] end.
  destruct Es3 as [-> _].
  ob H. ob H. ob H. inversion H; subst u'. clear H.
  unfold KT, htext, piece. cbn [hosti host_start host_end ser].
  replace (nlen (s1 ++ hd h) - nlen s1) with (nlen (hd h)) by (rewrite nlen_app; lia).
  rewrite <- !app_assoc. rewrite nskipn_app_exact, nfirstn_app_exact. apply ktx_host.
Qed.

Definition is_host_op (o : op) : bool :=
  match o with OSetHost _ | OSetIpHost _ | OQHost _ | OQHostname _ => true | _ => false end.

Section Steps.
Variable dbg : bool.
Variable hp hpo : list N -> result host.
Variable hd : host -> list N.

(* a host setter leaves the record as it was, stores no host, or ends in set_host_internal: read off the code, no
   hypothesis on the record or on the host functions *)
Lemma host_op_cases u o u' : is_host_op o = true -> apply_op dbg hp hpo hd u o = Some u' ->
  u' = u \/ hosti u' = HI_None \/ exists h onp, set_host_internal dbg hd u h onp = Some u'.
Proof.
  intros Ho H. destruct o; try discriminate Ho; cbn [apply_op] in H; apply omf_some in H; destruct H as [st H].
  - unfold set_host in H. ob H. ob H; [left; inversion H; reflexivity|]. ob H. destruct h as [hs|].
    + ob H; [left; inversion H; reflexivity|]. cbv zeta in H.
      match type of H with (match ?sub with Some _ => _ | None => _ end) = _ => destruct sub as [hsub|] end;
        [|left; inversion H; reflexivity].
      match type of H with (match ?r with Ok _ => _ | Err _ => _ end) = _ => destruct r as [host|e] end;
        [|left; inversion H; reflexivity].
      match type of H with bindo ?e _ = _ => destruct e as [u1|] eqn:Ex end; cbn [bindo] in H; [|discriminate H].
      inversion H; subst. right. right. exists host, None. exact Ex.
    + ob H; [|left; inversion H; reflexivity]. ob H; [left; inversion H; reflexivity|]. cbv zeta in H.
      obs H. inversion H; subst. right. left. reflexivity.
  - unfold set_ip_host in H. ob H. ob H; [left; inversion H; reflexivity|].
    match type of H with bindo ?e _ = _ => destruct e as [u1|] eqn:Ex end; cbn [bindo] in H; [|discriminate H].
    inversion H; subst. right. right. exists h, None. exact Ex.
  - unfold q_set_host in H. ob H. ob H; [left; inversion H; reflexivity|]. ob H. cbv zeta in H. ob H.
    + match type of H with bindo ?e _ = _ => destruct e as [u1|] eqn:Ex end; cbn [bindo] in H; [|discriminate H].
      inversion H; subst. right. right. exists (HDomain []), None. exact Ex.
    + ob H. destruct o as [[h rem]|]; [|left; inversion H; reflexivity].
      ob H. ob H. ob H; [left; inversion H; reflexivity|].
      match type of H with bindo ?e _ = _ => destruct e as [u1|] eqn:Ex end; cbn [bindo] in H; [|discriminate H].
      inversion H; subst. right. right. eexists _, _. exact Ex.
  - unfold q_set_hostname in H. ob H. ob H; [left; inversion H; reflexivity|]. ob H. cbv zeta in H. ob H.
    + match type of H with bindo ?e _ = _ => destruct e as [u1|] eqn:Ex end; cbn [bindo] in H; [|discriminate H].
      inversion H; subst. right. right. exists (HDomain []), None. exact Ex.
    + ob H. destruct o as [[h rem]|]; [|left; inversion H; reflexivity].
      ob H. ob H; [left; inversion H; reflexivity|].
      match type of H with bindo ?e _ = _ => destruct e as [u1|] eqn:Ex end; cbn [bindo] in H; [|discriminate H].
      inversion H; subst. right. right. eexists _, _. exact Ex.
Qed.

Lemma keep_host_str u o u' : wfh u -> op_args_ok o -> excl03 u o u' = false -> is_host_op o = false ->
  apply_op dbg hp hpo hd u o = Some u' -> host_str u' = host_str u.
Proof.
  intros K Ha G Hno H. pose proof (keep_cases dbg hp hpo hd u o u' K Ha G H) as KC.
  destruct o; cbn [is_host_op] in Hno; try discriminate Hno;
    (destruct KC as [->|[_ k]]; [reflexivity | exact (keep_kind_host_str dbg u u' k)]).
Qed.

Lemma keep_hosti u o u' : is_host_op o = false -> apply_op dbg hp hpo hd u o = Some u' -> hosti u' = hosti u.
Proof.
  intros Hno H. destruct o; cbn [apply_op is_host_op] in H, Hno; try discriminate Hno;
    try (apply omf_some in H; destruct H as [st H]).
  - exact (set_fragment_hosti dbg u f u' H).
  - exact (set_query_hosti dbg u q u' H).
  - exact (set_path_hosti dbg u p u' H).
  - exact (set_port_hosti dbg u p u' st H).
  - exact (set_password_hosti dbg u p u' st H).
  - exact (set_username_hosti dbg u s u' st H).
  - exact (set_scheme_hosti dbg u s u' st H).
  - exact (path_segments_session_hosti dbg u ops u' st H).
  - unfold q_set_protocol in H. cbv zeta in H. exact (set_scheme_hosti dbg u _ u' st H).
  - exact (set_username_hosti dbg u s u' st H).
  - unfold q_set_password in H. exact (set_password_hosti dbg u _ u' st H).
  - exact (q_set_port_hosti dbg u s u' st H).
  - exact (q_set_pathname_hosti dbg u s u' H).
  - unfold q_set_search in H. exact (set_query_hosti dbg u _ u' H).
  - unfold q_set_hash in H. exact (set_fragment_hosti dbg u _ u' H).
Qed.

(* one call of any of the 19 mutators outside excl03 *)
Theorem kt_step u o u' : wfh u -> wf_b u' = true -> op_args_ok o -> excl03 u o u' = false ->
  apply_op dbg hp hpo hd u o = Some u' -> KT hd u -> KT hd u'.
Proof.
  intros K W' Ha G H K0. pose proof K as [W _].
  destruct (is_host_op o) eqn:Eo.
  - destruct (host_op_cases u o u' Eo H) as [->|[Hn|(h & onp & E)]]; [exact K0 | exact (kt_no_host hd u' Hn)|].
    pose proof (pidx_in_bounds u W BeforeHost) as L. exact (set_host_internal_kt dbg hd u h onp u' L E).
  - exact (kt_same hd u u' W W' (keep_hosti u o u' Eo H) (keep_host_str u o u' K Ha G Eo H) K0).
Qed.

End Steps.

(* inv03 with the host text clause *)
Definition inv03k (hd : host -> list N) (u : url) : Prop := inv03 u /\ KT hd u.

Section Inv.
Variable dbg : bool.
Variable hp hpo : list N -> result host.
Variable hd : host -> list N.
Hypothesis HW : HostWf hp hpo hd.

Theorem parse_url_inv03k ovr base input u :
  match base with Some b => inv03k hd b | None => True end ->
  parse_url dbg hp hpo hd ovr base input = POk u -> inv03k hd u.
Proof using HW.
  intros Hb Hp. split.
  - apply (parse_url_inv03 dbg hp hpo hd ovr base input u HW); [|exact Hp].
    destruct base as [b|]; [exact (proj1 Hb) | exact I].
  - apply (parse_url_kt_inv dbg hp hpo hd ovr base input u HW); [|exact Hp].
    destruct base as [b|]; [exact Hb | exact I].
Qed.

Hypothesis HNE : NoEmpty hp.
Hypothesis HIPW : IpWf hd.

Theorem inv03k_step u o u' : inv03k hd u -> op_args_ok o -> known03k u o u' = false ->
  apply_op dbg hp hpo hd u o = Some u' -> inv03k hd u'.
Proof using HW HNE HIPW.
  apply (inv03_and_step dbg hp hpo hd HW HNE HIPW (KT hd)). intros u0 o0 u0' Iu Iu'.
  exact (kt_step dbg hp hpo hd u0 o0 u0' (proj1 Iu) (proj1 (proj1 Iu'))).
Qed.

Theorem reach03j_inv03k u : reach03j dbg hp hpo hd u -> inv03k hd u.
Proof using HW HNE HIPW.
  apply (reach03j_closed dbg hp hpo hd (inv03k hd)).
  - exact parse_url_inv03k.
  - intros Q HQ. split; [exact (file_rec_inv03 Q (file_rec_wfh Q HQ)) | apply kt_no_host; reflexivity].
  - exact inv03k_step.
Qed.
End Inv.

(* query_pairs_mut sessions: the front of the record is not touched *)
Lemma qpm_kt dbg hd u ops u' : wf_b u = true -> Forall ok_or_space (ser u) -> Forall op_ok ops ->
  query_pairs_session dbg u ops = Some u' -> KT hd u -> KT hd u'.
Proof.
  intros W Hoks Hops H K. destruct (qpm_keeps dbg u ops u' W Hoks Hops H) as ((str' & ->) & W' & _ & Eh & _).
  exact (kt_same hd u _ W W' eq_refl Eh K).
Qed.

Theorem reach3_inv03k dbg hp hpo hd : HostWf hp hpo hd -> host_nonempty hp hpo -> IpWf hd -> HostOK hp hpo hd -> IpOKv hd ->
  forall u, Reachable3 dbg hp hpo hd u -> inv03k hd u /\ Forall ok_or_space (ser u).
Proof.
  intros HW HNE HIPW HOK HIP u R. destruct (reach3_inv_all dbg hp hpo hd HW HNE HIPW HOK HIP u R) as [Iu Ou].
  split; [split; [exact Iu|] | exact Ou]. clear Iu Ou. revert u R.
  apply (reach3_closed dbg hp hpo hd HW HNE HIPW HOK HIP (KT hd)).
  - intros ovr base input u Hb Hp. exact (proj2 (parse_url_inv03k dbg hp hpo hd HW ovr base input u Hb Hp)).
  - intros u o u' Iu Ku Ha G H. exact (proj2 (inv03k_step dbg hp hpo hd HW (proj1 HNE) HIPW u o u' (conj Iu Ku) Ha G H)).
  - exact (qpm_kt dbg hd).
Qed.

(* host(), host_str(), domain(), has_host() of a well-formed record with KT: without a host all three are None; a
   domain host is Domain(t) with host_str = domain = t; an address host a has host_str = Display(a) and no domain *)
Theorem views_agree hd u : wf_b u = true -> KT hd u ->
  (has_host u = false /\ host_of u = Some None /\ host_str u = Some None /\ domain u = Some None)
  \/ (has_host u = true /\ exists t, host_of u = Some (Some (HDomain t)) /\ host_str u = Some (Some t) /\ domain u = Some (Some t))
  \/ (has_host u = true /\ exists h, is_ip h /\ host_of u = Some (Some h) /\ host_str u = Some (Some (hd h)) /\ domain u = Some None).
Proof.
  intros W K. pose proof (htext_host_str u W) as Hs. unfold KT in K. unfold has_host, host_of, domain in *.
  assert (forall t, htext u = t -> u_slice u (host_start u) (host_end u) = Some t \/ hosti u = HI_None) as Sl.
  { intros t Et. destruct (hosti u) eqn:E; [right; reflexivity | left ..];
      (unfold host_str, has_host in Hs; rewrite E in Hs;
       destruct (u_slice u (host_start u) (host_end u)) as [x|]; cbn [bindo] in Hs; [|discriminate Hs];
       inversion Hs; subst; reflexivity). }
  destruct (hosti u) eqn:E.
  - left. repeat split; try reflexivity. exact Hs.
  - right. left. split; [reflexivity|]. exists (htext u).
    destruct (Sl _ eq_refl) as [S|S]; [|discriminate S]. rewrite S. cbn [bindo]. repeat split. exact Hs.
  - right. right. split; [reflexivity|]. exists (HIpv4 a). cbn [ktx] in K. rewrite <- K. repeat split. exact Hs.
  - right. right. split; [reflexivity|]. exists (HIpv6 p). cbn [ktx] in K. rewrite <- K. repeat split. exact Hs.
Qed.
