(* Proofs/Idna_C12c_Virtual.v - ToASCII and ToUnicode of a name read off its VIRTUAL run (C12).
   The virtual run of d is proc_all (split_on DOT d) of Proofs/Idna_C10d_CaseLoop.v: every label is processed, none is
   passed through.  If it succeeds with buffer texts Ys and entries Fss, the buffer has the bidi verdict bd and - when
   bd is set - the labels behind the first k (k at most the number of leading pass-through labels of d) pass the bidi
   rule, then (virtual_ascii, virtual_unicode)
     to_ascii d   = Ok (_, join_dots (outs is_ascii_l (VL Ys) (concat Fss)))      (unless the encoder panics)
     to_unicode d = UI _ (join_dots (outs (fun _ => true) (VL Ys) (concat Fss))) false.
   No adapter premise besides Redisc (a consequence of map_normalize [] = []). *)
From RU Require Import Base.Prelude Base.Utf8 Base.U32_c13 Gen.Tables Model.Punycode Model.Uts46
  Proofs.Idna_Sim Proofs.Idna_Api Proofs.Idna_Known Proofs.Idna_Hyp Proofs.Idna_Redisc
  Proofs.Idna_C10_Deny Proofs.Idna_C10_Prefix Proofs.Idna_C10_Inner Proofs.Idna_C10_Walk
  Proofs.Idna_C10b_AsciiInner Proofs.Idna_C10b_AsciiWalk Proofs.Idna_C10b_Stmt Proofs.Idna_WalkInv Proofs.Idna_WalkEnc Proofs.Idna_WalkFun
  Proofs.Idna_WalkApi Proofs.Idna_C10c_Puny Proofs.Idna_C10c_Start Proofs.Idna_C10c_Drun Proofs.Idna_C10c_Loop Proofs.Idna_C10c_Rerun
  Proofs.Idna_C10c_Idem Proofs.Idna_Mark Proofs.Idna_C10d_CaseLabel Proofs.Idna_C10d_CaseLoop Proofs.Idna_C10d_Case.

Definition uT : list N -> bool := fun _ => true.

Lemma outs_true_inl cfg labels : forall ap, exists os, outs cfg uT labels ap = inl os.
Proof.
  induction labels as [|l r IH]; intros [|e ap]; cbn [outs]; eauto.
  destruct (IH ap) as (os & ->). destruct e; cbn [out_label uT]; eauto.
Qed.
Lemma uni1_always tld bd l : uni1 false always_unicode tld bd l = uT l.
Proof. unfold uni1, uT. destruct (pp1 false l); reflexivity. Qed.

Lemma skipn_app_le {X} k (a b : list X) : (k <= length a)%nat -> skipn k (a ++ b) = skipn k a ++ b.
Proof. intros H. rewrite skipn_app. replace (k - length a)%nat with 0%nat by lia. reflexivity. Qed.

Section Virtual.
Variable A : adapter.
Variable cfg : bool.
Variable deny : N.
Variable hy : hyphens.
Hypothesis HU : DenyUpper deny.
Hypothesis HL : LdhFree deny.
Hypothesis HR : Redisc A cfg deny.

Notation proc_all := (proc_all A cfg deny hy).
Notation BOKl := (BOKl A).

(* to_unicode on the walking branch, from the fail-fast result *)
Lemma to_unicode_text d pl l rest bd db ap : bytes d ->
  d = ptext pl ++ join_dots (l :: rest) -> len (ptext pl) < len d ->
  process_inner A cfg true hy deny d = IRes (len (ptext pl)) bd false db ap ->
  length (split_on DOT db) = length ap /\
  exists b os, outs cfg uT (split_on DOT db) ap = inl os /\ to_unicode A cfg d deny hy = UI b (ptext pl ++ join_dots os) false.
Proof.
  intros Hb Hd Hlt Ei.
  destruct (inner_facts A cfg true hy deny d _ _ _ _ _ Hb Ei) as [(_ & Hx & _)|[(Hx & _)|[HB Hm]]]; [discriminate|lia|].
  pose proof HB as (_ & Hlen & He1 & Hfd & _ & P & rl & Hd2 & HP & Hcv & HaP & Hma). split; [exact Hlen|].
  assert (HPe : P = ptext pl) by (apply (app_eq_len P (join_dots rl) (ptext pl) (join_dots (l :: rest))); [rewrite <- Hd2; exact Hd|exact HP]).
  subst P.
  assert (Hne : len (ptext pl) <> len d) by lia.
  unfold to_unicode, to_user_interface.
  rewrite (process_B A cfg false always_unicode d deny hy None None false _ _ _ _ _ Hm Hne eq_refl Hfd). cbv zeta.
  pose proof (walk1_spec cfg d false false always_unicode (tld_of db) bd (split_on DOT db) ap false (len (ptext pl)) false false (ptext pl) rl Hlen
                ltac:(discriminate)
                ltac:(intros _; split; [apply split_on_ne|cbn [tailtext]; repeat split; assumption])) as HW.
  rewrite (outs_agree cfg _ uT _ _ (agree_all _ _ (uni1_always (tld_of db) bd) _ _)) in HW.
  rewrite (stays_agree _ uT _ _ (agree_all _ _ (uni1_always (tld_of db) bd) _ _)) in HW.
  destruct (outs_true_inl cfg (split_on DOT db) ap) as (os & Eo). rewrite Eo in HW.
  unfold Post1, Res1 in HW. cbn [negb andb tailtext] in HW. rewrite andb_false_r in HW.
  destruct (walk1 cfg false always_unicode d (tld_of db) bd false (split_on DOT db) ap false (len (ptext pl)) false false) as [ws we].
  rewrite run_sink_none. cbn [fst snd negb] in *.
  destruct (stays uT (split_on DOT db) ap).
  - destruct HW as [HW1 HW2]. rewrite HW2. exists true, os. split; [exact Eo|]. rewrite HW1. reflexivity.
  - destruct HW as [HW1 HW2]. rewrite HW1. rewrite andb_false_r. exists false, os. split; [exact Eo|].
    unfold wcat in HW2. cbn [fst] in HW2. rewrite HW2. reflexivity.
Qed.

(* the real run from the virtual run *)
Definition VBk (k : nat) (bd : bool) (Ys : list (list N)) : Prop :=
  is_bidi A cfg (concat Ys) = Ok bd /\ (bd = true -> Forall BOKl (VL (skipn k Ys))).

Lemma inner_of_virtual d Ys Fss k bd : bytes d -> proc_all (split_on DOT d) = SOk (Ys, Fss) -> VBk k bd Ys ->
  (k <= length (ptake (split_on DOT d)))%nat ->
  let pl := ptake (split_on DOT d) in
  (pdrop (split_on DOT d) = [] /\ pl = split_on DOT d /\ Forall PassL pl /\ Ys = pl /\ Fss = map (fun l => [MixedCaseAscii l]) pl /\
   process_inner A cfg true hy deny d = IRes (len d) false false [] []) \/
  exists l rest Xs Ess, Forall PassL pl /\ Ys = pl ++ Xs /\ Fss = map (fun l => [MixedCaseAscii l]) pl ++ Ess /\ Xs <> [] /\
    d = ptext pl ++ join_dots (l :: rest) /\ len (ptext pl) < len d /\
    process_inner A cfg true hy deny d = IRes (len (ptext pl)) bd false (join_dots Xs) (concat Ess).
Proof.
  intros Hb Hp (Hbd & Hbok) Hk pl. pose proof (inner_closed A cfg deny hy HR d Hb) as Hic.
  destruct (run_shape d Hb) as [Hpl [[Ed Epl]|(l & rest & Ed & Hd & Hlt)]]; fold pl in Hpl.
  - left. rewrite Ed in Hic. fold pl in Epl. pose proof Hpl as Hpl'. rewrite Epl in Hpl'.
    rewrite (proc_all_pass A cfg deny hy HL _ Hpl') in Hp. inversion Hp. rewrite Epl. repeat split; try assumption; reflexivity.
  - right. fold pl in Hd, Hlt. rewrite Ed in Hic.
    rewrite <- (ptake_pdrop (split_on DOT d)), Ed in Hp. fold pl in Hp.
    rewrite proc_all_app, (proc_all_pass A cfg deny hy HL _ Hpl) in Hp.
    destruct (proc_all (l :: rest)) as [[Xs Ess]| |p] eqn:Ep; try discriminate. inversion Hp. subst Ys Fss. clear Hp.
    assert (HXne : Xs <> []).
    { destruct (proc_all_len A cfg deny hy _ _ _ Ep) as [Hx _]. intros ->. discriminate Hx. }
    exists l, rest, Xs, Ess. repeat split; try assumption.
    rewrite concat_app, is_bidi_app, (is_bidi_ascii A cfg _ (pass_all_ascii _ Hpl)), <- is_bidi_join in Hbd.
    rewrite Hic. unfold finish. rewrite Hbd. destruct bd; [|reflexivity].
    specialize (Hbok eq_refl). fold pl in Hk. rewrite (skipn_app_le k pl Xs Hk), VL_app in Hbok. apply Forall_app in Hbok. destruct Hbok as [_ Hbok].
    rewrite <- (split_join_gen Xs HXne) in Hbok. rewrite (bidi_labels_ok A _ Hbok), join_split. reflexivity.
Qed.

Lemma outs_virtual uni pl Xs Ess : Forall PassL pl -> Xs <> [] ->
  outs cfg uni (VL (pl ++ Xs)) (concat (map (fun l => [MixedCaseAscii l]) pl ++ Ess)) =
  match outs cfg uni (split_on DOT (join_dots Xs)) (concat Ess) with inl os => inl (pl ++ os) | inr s => inr s end.
Proof.
  intros Hpl HX. rewrite VL_app, (VL_nodot _ (pass_all_nodot _ Hpl)), concat_app, concat_mca, (outs_mca cfg uni _ _ pl pl eq_refl).
  rewrite <- (split_join_gen Xs HX), (pass_all_lower deny HU HL _ Hpl). reflexivity.
Qed.
Lemma outs_virtual_pass uni pl : Forall PassL pl ->
  outs cfg uni (VL pl) (concat (map (fun l => [MixedCaseAscii l]) pl)) = inl pl.
Proof.
  intros Hpl. rewrite (VL_nodot _ (pass_all_nodot _ Hpl)), concat_mca.
  pose proof (outs_mca cfg uni [] [] pl pl eq_refl) as E. rewrite !app_nil_r in E. rewrite E. cbn [outs].
  rewrite app_nil_r, (pass_all_lower deny HU HL _ Hpl). reflexivity.
Qed.
Lemma outs_ne uni db ap os : outs cfg uni (split_on DOT db) ap = inl os -> length (split_on DOT db) = length ap -> os <> [].
Proof.
  intros Eo Hlen. pose proof (outs_len cfg uni _ _ _ Eo Hlen) as Hl. intros ->. cbn [length] in Hl.
  pose proof (split_on_ne db) as Hn. destruct (split_on DOT db); [congruence|discriminate].
Qed.

Theorem virtual_ascii d Ys Fss k bd ov : bytes d -> proc_all (split_on DOT d) = SOk (Ys, Fss) -> VBk k bd Ys ->
  (k <= length (ptake (split_on DOT d)))%nat -> outs cfg is_ascii_l (VL Ys) (concat Fss) = inl ov ->
  exists b, to_ascii A cfg d deny hy DIgnore = Ok (b, join_dots ov).
Proof.
  intros Hb Hp HV Hk Ho.
  destruct (inner_of_virtual d Ys Fss k bd Hb Hp HV Hk) as [(Ed & Epl & Hpl & -> & -> & Ei)|(l & rest & Xs & Ess & Hpl & -> & -> & HX & Hd & Hlt & Ei)].
  - rewrite (outs_virtual_pass _ _ Hpl) in Ho. inversion Ho. subst ov. exists true. rewrite Epl, join_split.
    unfold to_ascii, process. rewrite Ei, N.eqb_refl, andb_false_r. reflexivity.
  - rewrite (outs_virtual _ _ _ _ Hpl HX) in Ho.
    destruct (to_ascii_text A cfg deny hy HR d _ l rest bd _ _ Hb Hd Hlt Ei) as [Hlen HT].
    destruct (outs cfg is_ascii_l (split_on DOT (join_dots Xs)) (concat Ess)) as [os|s] eqn:Eo; [|discriminate].
    inversion Ho. subst ov. destruct HT as (b0 & HT). exists b0. rewrite (ptext_join _ os (outs_ne _ _ _ _ Eo Hlen)). exact HT.
Qed.

Theorem virtual_unicode d Ys Fss k bd : bytes d -> proc_all (split_on DOT d) = SOk (Ys, Fss) -> VBk k bd Ys ->
  (k <= length (ptake (split_on DOT d)))%nat ->
  exists b ov, outs cfg uT (VL Ys) (concat Fss) = inl ov /\ to_unicode A cfg d deny hy = UI b (join_dots ov) false.
Proof.
  intros Hb Hp HV Hk.
  destruct (inner_of_virtual d Ys Fss k bd Hb Hp HV Hk) as [(Ed & Epl & Hpl & -> & -> & Ei)|(l & rest & Xs & Ess & Hpl & -> & -> & HX & Hd & Hlt & Ei)].
  - exists true, (ptake (split_on DOT d)). split; [exact (outs_virtual_pass _ _ Hpl)|]. rewrite Epl, join_split.
    destruct (inner_ff_facts A cfg hy deny d _ _ _ _ _ Ei) as [HX|[_ Hm]]; [inversion HX|].
    unfold to_unicode, to_user_interface, process. rewrite Hm, N.eqb_refl, andb_false_r. reflexivity.
  - destruct (to_unicode_text d _ l rest bd _ _ Hb Hd Hlt Ei) as (Hlen & b0 & os & Eo & HT).
    exists b0, (ptake (split_on DOT d) ++ os). split; [rewrite (outs_virtual _ _ _ _ Hpl HX), Eo; reflexivity|].
    rewrite (ptext_join _ os (outs_ne _ _ _ _ Eo Hlen)). exact HT.
Qed.
End Virtual.
