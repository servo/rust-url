(* Proofs/C05_HostText.v - the stored host text along parse, join and gated mutator steps.
   Part A (parser): for ANY input numbers a parse result either lies entirely inside 0x21..0x7E or has no host
     (the opaque-path state, the only one that writes U+0020, belongs to records without authority); base: a record
     with CInv, bytes in 0x20..0x7E, bk and a space-free host text.  No scalar-value condition on the input
     (C05_Sharp.parse_url_sharp needs one for the head of an opaque path; the host text does not).
   Part B (mutators): FR u u' - what one gated step of any of the 19 mutators does to scheme and host text, read off
     C06's frame theorems: the scheme stays or (set_scheme) stays special / not special in the direction
     "new special -> old special"; host_str stays, becomes None, or becomes Display of an address value (set_ip_host)
     or of a host returned by the host parser that belongs to the scheme class of the URL (hp for special schemes,
     hpo otherwise).  The same reading of C06's theorems tells whether path() stays, so each mutator gets one
     statement about scheme class, host text and path (SH for those that leave the host alone, FK for the host
     setters), and step3_frame collects them: a gated step that is not one of the three path mutators keeps path().
   Together: AS ("special scheme => ://", hence base_ok) and "the host text of a URL satisfies Q" are invariants. *)
From RU Require Import Base.Prelude Base.Utf8 Base.Utf8Facts Model.AsciiSet Gen.Tables Model.PercentEncoding
  Model.HostT Model.UrlRecord Model.Parser Model.Setters Model.WF
  Proofs.ListN Proofs.C03_WF Proofs.C05_Enc Proofs.C05_Parser Proofs.C05_Setters Proofs.C05_History Proofs.C05_Sharp
  Proofs.C05_Frag Proofs.C05_Query Proofs.C05_Comp Proofs.C05_PathClean Proofs.C05_CompSteps Proofs.C05_CompHist
  Proofs.C06_List Proofs.C06_WFI Proofs.C06_Tail Proofs.C06_Steps Proofs.C06_Suffix
  Proofs.C06_Front Proofs.C06_Atomic Proofs.C06_FragQuery Proofs.C06_Port Proofs.C06_Cred Proofs.C06_Scheme
  Proofs.C06_HostNone Proofs.C06_Host Proofs.C06_PathParser Proofs.C06_Path Proofs.C06_Segments Proofs.C06_PathNoAuth
  Proofs.C06_Main Proofs.C06_PathMore Proofs.C06_Quirks Proofs.C04_ParseTotal Proofs.C03_ReachParts Proofs.C03_Reach Proofs.C03_ReachFile
  Proofs.C05_ParseAll Proofs.C05_CompSteps2 Proofs.C05_CompReach Proofs.C05_BaseOk Proofs.C05_CompSteps3 Proofs.C05_Alphabet
  Proofs.C05_AuthOfs Proofs.C05_AuthParse.

(* what Url::host_str() returns satisfies Q *)
Definition HTx (Q : list N -> Prop) (u : url) : Prop := forall s, host_str u = Some (Some s) -> Q s.

Lemma htx_piece Q u : wf_b u = true -> HTx Q u -> has_host u = true -> Q (piece u (host_start u) (host_end u)).
Proof. intros W H Hh. apply H. rewrite (host_str_eval u W), Hh. reflexivity. Qed.

Lemma htx_no_host Q u : wf_b u = true -> hosti u = HI_None -> HTx Q u.
Proof.
  intros W Hn s Hs. rewrite (host_str_eval u W) in Hs. unfold has_host in Hs. rewrite Hn in Hs. discriminate.
Qed.

Lemma htx_all_bytes (P : N -> Prop) u : wf_b u = true -> Forall P (ser u) -> HTx (Forall P) u.
Proof.
  intros W H s Hs. rewrite (host_str_eval u W) in Hs. destruct (has_host u); [|discriminate]. inversion Hs; subst s.
  unfold piece, nfirstn, nskipn. apply Forall_firstn, Forall_skipn. exact H.
Qed.

(* Part A: the parser *)
Section ParseHost.
Variable dbg : bool.
Variable hp hpo : list N -> result host.
Variable hd : host -> list N.
Variable ovr : option (list N -> list N).
Hypothesis HOK : HostOK hp hpo hd.

Lemma fragment_only_hosti b l u : fragment_only b l = POk u -> hosti u = hosti b.
Proof. unfold fragment_only. cbv zeta. intros H. pb H fs Hfs. inversion H; subst u. reflexivity. Qed.

(* an input that reaches the opaque-path state gives a record without host *)
Lemma opaque_input_no_host base input u : url_opaque_input input = true ->
  parse_url dbg hp hpo hd ovr base input = POk u -> hosti u = HI_None.
Proof.
  unfold url_opaque_input, parse_url. cbv zeta.
  destruct (parse_scheme CUrlParser (input_new_trim_c0 input)) as [[sch rem]|]; [|discriminate].
  unfold opaque_input. destruct (scheme_type_of sch) eqn:Est; try discriminate. intros Hob.
  unfold parse_with_scheme. intros H. pb H se Hse. cbv zeta in H. rewrite Est in H.
  unfold parse_non_special in H. unfold opaque_branch in Hob.
  destruct (inp_split_prefix_str s_ss rem); [discriminate|].
  destruct (inp_split_prefix_char 47 rem); [discriminate|].
  pb H ps Hps. pb H a Ha. destruct a as [s1 remaining].
  apply wqf_fields in H. exact (proj2 (proj2 H)).
Qed.

Lemma opaque_base_facts b : wf_b b = true -> bk b -> cannot_be_a_base b = Some true ->
  st_is_special (scheme_type_of (b_scheme b)) = false /\ hosti b = HI_None.
Proof.
  intros W K C. rewrite (cannot_be_a_base_eval b W) in C. inversion C as [C1]. apply negb_true_iff in C1.
  split.
  - destruct (st_is_special (scheme_type_of (b_scheme b))) eqn:E; [|reflexivity]. exfalso.
    specialize (K E). unfold sl1 in K. unfold byte_eqb in C1. rewrite K in C1. discriminate.
  - destruct (opaque_path_start b W C1) as [Ha _]. exact (nf_host (wf_noauth_facts b W Ha)).
Qed.

Theorem parse_url_host_bytes dbg' base input u :
  match base with
  | Some b => CInv dbg' b /\ Forall ok_or_space (ser b) /\ bk b /\ HTx (fun s => ~ In 32 s) b
  | None => True
  end ->
  parse_url dbg hp hpo hd ovr base input = POk u -> Forall ok_byte (ser u) \/ hosti u = HI_None.
Proof.
  intros Hb H.
  destruct (url_opaque_input input) eqn:Eop; [right; exact (opaque_input_no_host base input u Eop H)|].
  assert (forall base', match base' with Some b => Forall ok_byte (ser b) | None => True end ->
                        parse_url dbg hp hpo hd ovr base' input = POk u -> Forall ok_byte (ser u)) as Hplain.
  { intros base' Hb' H'.
    eapply (parse_url_okl ok_byte (fun _ h => h)); [exact HOK | | exact H' | exact Hb'].
    rewrite Eop. discriminate. }
  destruct base as [b|]; [|left; exact (Hplain None I H)].
  destruct Hb as (K & Hoks & Kb & Hh). pose proof K as [[W HT] _].
  pose proof (cannot_be_a_base_eval b W) as Ec.
  destruct (byte_eqb (ser b) (scheme_end b + 1) 47) eqn:Esl; cbn [negb] in Ec.
  - (* a hierarchical base lies inside 0x21..0x7E *)
    left. apply (Hplain (Some b)); [|exact H].
    apply (cinv_hier_ok_byte dbg' b K Hoks); [|exact Ec].
    intros Hhh. exact (htx_piece _ b W Hh Hhh).
  - (* an opaque base: not looked at once a scheme has been parsed; otherwise only its fragment is replaced *)
    destruct (opaque_base_facts b W Kb Ec) as [Hsp Hhi].
    unfold parse_url in H. cbv zeta in H.
    destruct (parse_scheme CUrlParser (input_new_trim_c0 input)) as [[scheme remaining]|] eqn:Es.
    + rewrite (parse_with_scheme_nonspecial_base dbg hp hpo hd ovr) in H by exact Hsp.
      left. apply (Hplain None I). unfold parse_url. cbv zeta. rewrite Es. exact H.
    + destruct (inp_starts_with_char 35 (input_new_trim_c0 input)).
      * right. rewrite (fragment_only_hosti b _ u H). exact Hhi.
      * rewrite Ec in H. discriminate.
Qed.

(* the host text of every parse result has no space *)
Theorem parse_url_host_nosp dbg' base input u : wf_b u = true ->
  match base with
  | Some b => CInv dbg' b /\ Forall ok_or_space (ser b) /\ bk b /\ HTx (fun s => ~ In 32 s) b
  | None => True
  end ->
  parse_url dbg hp hpo hd ovr base input = POk u -> HTx (fun s => ~ In 32 s) u.
Proof.
  intros W Hb H. destruct (parse_url_host_bytes dbg' base input u Hb H) as [Hok|Hn].
  - intros s Hs. apply ok_nosp. exact (htx_all_bytes ok_byte u W Hok s Hs).
  - exact (htx_no_host _ u W Hn).
Qed.

End ParseHost.

(* Part B: the mutators *)
Definition spb (u : url) : bool := st_is_special (scheme_type_of (b_scheme u)).

Lemma scheme_b u : wf_b u = true -> scheme u = Some (b_scheme u).
Proof.
  intros W. rewrite (scheme_eval u W). unfold piece, b_scheme. cbn [pidx]. rewrite N.sub_0_r, nskipn_0. reflexivity.
Qed.

Lemma spb_same u u' : wf_b u = true -> wf_b u' = true -> scheme u' = scheme u -> spb u' = spb u.
Proof.
  intros W W' E. rewrite (scheme_b u W), (scheme_b u' W') in E. inversion E as [E1]. unfold spb. rewrite E1. reflexivity.
Qed.

Lemma u_scheme_type_spb u sty : wf_b u = true -> u_scheme_type u = Some sty -> st_is_special sty = spb u.
Proof. intros W E. rewrite (u_scheme_type_eval u W) in E. inversion E. reflexivity. Qed.

(* the mutators that leave the host alone *)
(* the scheme class only goes from special to special, and host_str() is the same *)
Definition SH (u u' : url) : Prop := wf_b u' = true /\ (spb u' = true -> spb u = true) /\ host_str u' = host_str u.

Lemma sh_refl u : wf_b u = true -> SH u u.
Proof. intros W. split; [exact W | split; [tauto | reflexivity]]. Qed.

Lemma sh_same u u' : wf_b u = true -> wf_b u' = true -> scheme u' = scheme u -> host_str u' = host_str u -> SH u u'.
Proof. intros W W' E1 E2. split; [exact W' | split; [rewrite (spb_same u u' W W' E1); tauto | exact E2]]. Qed.

Section Same.
Variable dbg : bool.

(* path() stays unless the path is opaque (then trailing spaces may go with the fragment / query) *)
Lemma set_fragment_sh u f u' : wf_b u = true -> set_fragment dbg u f = Some u' ->
  SH u u' /\ (is_opaque_b u = false -> path u' = path u).
Proof.
  intros W H. destruct (set_fragment_ok dbg u f W) as (u'' & E' & W' & (S1 & _ & _ & S4 & _) & _ & _ & _ & P).
  rewrite H in E'. inversion E'; subst u''. split; [exact (sh_same u u' W W' S1 S4)|].
  intros Ho. destruct f; [exact P|]. unfold opaque_strip_applies in P. rewrite Ho in P. exact P.
Qed.

Lemma set_query_sh u q u' : wf_b u = true -> str_arg_ok q -> set_query dbg u q = Some u' ->
  SH u u' /\ (is_opaque_b u = false -> path u' = path u).
Proof.
  intros W Hq H. destruct (set_query_ok dbg u q W Hq) as (u'' & E' & W' & (S1 & _ & _ & S4 & _) & _ & _ & _ & P).
  rewrite H in E'. inversion E'; subst u''. split; [exact (sh_same u u' W W' S1 S4)|].
  intros Ho. destruct q; [exact P|]. rewrite Ho in P. exact P.
Qed.

Lemma set_port_sh u p u' st : wfh u -> port_arg_ok p -> set_port dbg u p = Some (u', st) -> SH u u' /\ path u' = path u.
Proof.
  intros [W HT] Hp. apply (by_status _ u _ (fun x => SH u x /\ path x = path u) (set_port_ok dbg u p W HT Hp)).
  - exact (conj (sh_refl u W) eq_refl).
  - intros x (W' & _ & (I1 & _ & _ & I4) & (B1 & _) & _). exact (conj (sh_same u x W W' I1 I4) B1).
Qed.

Lemma q_set_port_sh u v u' st : wfh u -> q_set_port dbg u v = Some (u', st) -> SH u u' /\ path u' = path u.
Proof.
  intros K H. destruct (q_set_port_as_set_port dbg u v u' st H) as [[-> _]|(p & Hp & E)].
  - exact (conj (sh_refl u (proj1 K)) eq_refl).
  - exact (set_port_sh u p u' st K Hp E).
Qed.

Lemma set_password_sh u pw u' st : wfh u -> set_password dbg u pw = Some (u', st) -> SH u u' /\ path u' = path u.
Proof.
  intros [W HT]. apply (by_status _ u _ (fun x => SH u x /\ path x = path u) (set_password_ok dbg u pw W HT)).
  - exact (conj (sh_refl u W) eq_refl).
  - intros x (W' & _ & A & _ & C & _ & (B1 & _) & _). exact (conj (sh_same u x W W' A C) B1).
Qed.

Lemma set_username_sh u un u' st : wfh u -> set_username dbg u un = Some (u', st) -> SH u u' /\ path u' = path u.
Proof.
  intros [W HT]. apply (by_status _ u _ (fun x => SH u x /\ path x = path u) (set_username_ok dbg u un W HT)).
  - exact (conj (sh_refl u W) eq_refl).
  - intros x (W' & _ & A & _ & C & _ & (B1 & _) & _). exact (conj (sh_same u x W W' A C) B1).
Qed.

(* set_scheme: the new scheme is special only if the old one is (C05_AuthOfs.set_scheme_special) *)
Lemma set_scheme_sh u s u' st : wfh u -> set_scheme dbg u s = Some (u', st) -> SH u u' /\ path u' = path u.
Proof.
  intros [W HT] H. destruct (set_scheme_ok dbg u s W HT) as (u'' & st' & E' & Herr & Hok).
  rewrite H in E'. inversion E'; subst u'' st'.
  destruct st; [|rewrite Herr by discriminate; exact (conj (sh_refl u W) eq_refl) ..].
  destruct (Hok eq_refl) as (new & rem & Eps & W' & _ & Esch & _ & _ & Ehs & (B1 & _) & _).
  destruct (set_scheme_special dbg u s u' H) as [->|(ns & rem' & ost & Eps' & Eost & Hdir)]; [exact (conj (sh_refl u W) eq_refl)|].
  unfold input_new_no_trim in Eps'. rewrite Eps in Eps'. inversion Eps'; subst ns rem'.
  split; [|exact B1]. split; [exact W'|]. split; [|exact Ehs]. intros Hs'.
  rewrite <- (u_scheme_type_spb u ost W Eost). apply Hdir.
  rewrite (scheme_b u' W') in Esch. injection Esch as E1. unfold spb in Hs'. rewrite E1 in Hs'. exact Hs'.
Qed.

End Same.

Section Frames.
Variable dbg : bool.
Variable hp hpo : list N -> result host.
Variable hd : host -> list N.
Hypothesis HW : HostWf hp hpo hd.

(* a host returned by the parser of the scheme class *)
Definition origin_st (sp : bool) (h : host) : Prop := if sp then exists s, hp s = Ok h else exists s, hpo s = Ok h.

Lemma origin_st_origin sp h : origin_st sp h -> host_origin hp hpo h.
Proof. destruct sp; intros [s E]; [right; left | right; right]; exists s; exact E. Qed.

Definition hs_keep (u u' : url) : Prop :=
  host_str u' = host_str u \/ host_str u' = Some None
  \/ exists h, host_str u' = Some (Some (hd h)) /\ h <> HDomain [] /\ (ip_arg h \/ origin_st (spb u) h).

(* what a step does to the scheme class and to the host text *)
Definition FR (u u' : url) : Prop := (spb u' = true -> spb u = true) /\ hs_keep u u'.

Lemma fr_refl u : FR u u.
Proof. split; [tauto | left; reflexivity]. Qed.

Lemma fr_sh u u' : SH u u' -> FR u u'.
Proof. intros (_ & S & E). split; [exact S | left; exact E]. Qed.

(* ... and path() is the same *)
Definition FK (u u' : url) : Prop := FR u u' /\ path u' = path u.

Lemma fk_refl u : FK u u.
Proof. split; [apply fr_refl | reflexivity]. Qed.

Lemma fr_front u u' : wf_b u = true -> wf_b u' = true -> same_front dbg u u' -> FR u u'.
Proof. intros W W' (S1 & _ & _ & S4 & _). exact (fr_sh u u' (sh_same u u' W W' S1 S4)). Qed.

Lemma fr_path_result u u' P : wf_b u = true -> path_result dbg u u' P -> FR u u'.
Proof. intros W (W' & _ & SF & _). exact (fr_front u u' W W' SF). Qed.

(* a new host *)
Lemma fr_new_host u u' h : wf_b u = true -> wf_b u' = true -> scheme u' = scheme u ->
  host_str u' = Some (if hi_some (hi_of_host h) then Some (hd h) else None) ->
  h = HDomain [] \/ ip_arg h \/ origin_st (spb u) h -> FR u u'.
Proof.
  intros W W' E1 E2 Ho. split; [rewrite (spb_same u u' W W' E1); tauto|].
  destruct (hi_some (hi_of_host h)) eqn:Eh; [|right; left; exact E2].
  right. right. exists h. split; [exact E2|].
  split; [intros ->; discriminate Eh|]. destruct Ho as [->|Ho]; [discriminate Eh | exact Ho].
Qed.

Lemma set_path_fr u p u' : CInv dbg u -> usv_list p -> auth_end_ok u ->
  (is_opaque_b u = true -> forallb no_qh p = true) -> path_gate u u' ->
  set_path dbg u p = Some u' -> FR u u'.
Proof.
  intros [WH _] Hp Hx Hq G H. destruct (set_path_result dbg u p u' WH Hp Hx Hq G H) as (P & R & _).
  exact (fr_path_result u u' P (proj1 WH) R).
Qed.

Lemma session_fr u ops u' st : CInv dbg u -> Forall psm_op_usv ops -> path_gate u u' ->
  path_segments_session dbg u ops = Some (u', st) -> FR u u'.
Proof.
  intros [WH _] Hops G H.
  destruct st; [|rewrite (path_segments_session_atomic dbg u ops u' _ H) by discriminate; apply fr_refl ..].
  destruct (session_result dbg u ops u' WH Hops G H) as (_ & P & _ & R). exact (fr_path_result u u' P (proj1 WH) R).
Qed.

Lemma q_set_pathname_fr u v u' : CInv dbg u -> usv_list v -> auth_end_ok u -> path_gate u u' ->
  q_set_pathname dbg u v = Some u' -> FR u u'.
Proof.
  intros K Hv Hx G H. pose proof K as [[W _] _].
  destruct (q_set_pathname_as_set_path dbg u v u' W Hv H) as [->|(Ho & p & Hp & E)]; [apply fr_refl|].
  apply (set_path_fr u p u' K Hp Hx); [|exact G | exact E]. intros Ho'. rewrite Ho in Ho'. discriminate.
Qed.

Lemma set_host_none_frame u u' st : wf_b u = true ->
  (has_host u = true -> path_empty_at_end u = false /\ path_starts_with_2slash u = false) ->
  set_host dbg hp hpo hd u None = Some (u', st) -> FK u u'.
Proof.
  intros W G H. destruct (set_host_none_ok dbg hp hpo hd u u' st W H) as (Herr & Hno & Hok).
  destruct st; [|rewrite Herr by discriminate; apply fk_refl ..].
  destruct (has_host u) eqn:Hh; [|rewrite (Hno eq_refl eq_refl); apply fk_refl].
  destruct (G eq_refl) as [G1 G2].
  destruct (Hok eq_refl eq_refl G1 G2) as (W' & _ & Sch & (B1 & _) & _ & _ & Hs & _).
  split; [|exact B1]. split; [rewrite (spb_same u u' W W' Sch); tauto | right; left; exact Hs].
Qed.

(* a new host: the empty one, an address value, or one of the scheme class *)
Lemma host_set_post_frame u u' h : wf_b u = true -> host_set_post dbg hd u u' h ->
  h = HDomain [] \/ ip_arg h \/ origin_st (spb u) h -> FK u u'.
Proof.
  intros W (W' & _ & Sch & _ & _ & _ & (B1 & _) & Hs & _) Ho. exact (conj (fr_new_host u u' h W W' Sch Hs Ho) B1).
Qed.

Lemma host_port_post_frame u u' h np : wf_b u = true -> host_port_post dbg hd u u' h np ->
  h = HDomain [] \/ ip_arg h \/ origin_st (spb u) h -> FK u u'.
Proof.
  intros W (W' & _ & Sch & _ & _ & _ & (B1 & _) & Hs & _) Ho. exact (conj (fr_new_host u u' h W W' Sch Hs Ho) B1).
Qed.

Lemma class_origin3 u h : h = HDomain [] \/ class_host hp hpo u h -> h = HDomain [] \/ ip_arg h \/ origin_st (spb u) h.
Proof. intros [E|Ho]; [left; exact E | right; right; exact Ho]. Qed.

Lemma set_host_some_frame u x u' st : wf_b u = true ->
  (has_authority_b u = false -> path_start u = scheme_end u + 1) ->
  (has_authority_b u = true -> hosti u' = HI_None -> port u = None) ->
  set_host dbg hp hpo hd u (Some x) = Some (u', st) -> FK u u'.
Proof.
  intros W X2 X1 H.
  destruct (set_host_some_result dbg hp hpo hd u x u' st W (fun h Hh => class_disp_ok hp hpo hd HW u h (or_intror Hh)) X2 X1 H)
    as [->|(h & Ho & Hp)]; [apply fk_refl|].
  exact (host_set_post_frame u u' h W Hp (class_origin3 u h (or_intror Ho))).
Qed.

Lemma set_ip_host_frame u h u' st : IpDisp hd -> wf_b u = true -> ip_arg h ->
  (has_authority_b u = false -> path_start u = scheme_end u + 1) ->
  set_ip_host dbg hd u h = Some (u', st) -> FK u u'.
Proof.
  intros HI W Hv X2 H. destruct (set_ip_host_ok dbg hd u h u' st W (HI h Hv) X2 H) as (Herr & Hok).
  destruct st; [|rewrite Herr by discriminate; apply fk_refl ..].
  apply (host_set_post_frame u u' h W); [|right; left; exact Hv].
  apply (Hok eq_refl). intros _ Hn. exfalso. exact (ip_arg_not_none h Hv Hn).
Qed.

Lemma parse_host_origin_st st l h rem : parse_host hp hpo st l = POk (h, rem) ->
  h = HDomain [] \/ origin_st (st_is_special st) h.
Proof. exact (parse_host_class hp hpo st l h rem). Qed.

Lemma q_set_host_frame u v u' st : wf_b u = true ->
  (has_authority_b u = false -> path_start u = scheme_end u + 1) ->
  (has_authority_b u = true -> hosti u' = HI_None -> port u = None) ->
  q_set_host dbg hp hpo hd u v = Some (u', st) -> FK u u'.
Proof.
  intros W X2 X1 H.
  destruct (q_set_host_result dbg hp hpo hd HW u v u' st W X2 X1 H) as [->|(h & Ho & [Hp|(np & Hp)])]; [apply fk_refl | |].
  - exact (host_set_post_frame u u' h W Hp (class_origin3 u h Ho)).
  - exact (host_port_post_frame u u' h np W Hp (class_origin3 u h Ho)).
Qed.

Lemma q_set_hostname_frame u v u' st : wf_b u = true ->
  (has_authority_b u = false -> path_start u = scheme_end u + 1) ->
  (has_authority_b u = true -> hosti u' = HI_None -> port u = None) ->
  q_set_hostname dbg hp hpo hd u v = Some (u', st) -> FK u u'.
Proof.
  intros W X2 X1 H.
  destruct (q_set_hostname_result dbg hp hpo hd HW u v u' st W X2 X1 H) as [->|(h & Ho & Hp)]; [apply fk_refl|].
  exact (host_set_post_frame u u' h W Hp (class_origin3 u h Ho)).
Qed.

(* the three mutators that write a path *)
Definition path_op (o : op) : Prop :=
  match o with OSetPath _ | OPathSegments _ | OQPathname _ => True | _ => False end.

Theorem step3_frame u o u' : IpDisp hd -> CInv dbg u -> step_gate3 hp hpo hd u o u' ->
  apply_op dbg hp hpo hd u o = Some u' ->
  FR u u' /\ (is_opaque_b u = false -> path_op o \/ path u' = path u).
Proof.
  intros HI K G H. pose proof K as [[W HT] _]. pose proof (conj W HT : wfh u) as WH.
  assert (forall u', FK u u' -> FR u u' /\ (is_opaque_b u = false -> path_op o \/ path u' = path u)) as Hfk
    by (intros x [F E]; split; [exact F | intros _; right; exact E]).
  assert (forall u', SH u u' /\ path u' = path u -> FR u u' /\ (is_opaque_b u = false -> path_op o \/ path u' = path u)) as Hsh
    by (intros x [F E]; apply Hfk; exact (conj (fr_sh u x F) E)).
  assert (forall u', SH u u' /\ (is_opaque_b u = false -> path u' = path u) ->
            FR u u' /\ (is_opaque_b u = false -> path_op o \/ path u' = path u)) as Hfo
    by (intros x [F E]; split; [exact (fr_sh u x F) | intros Ho; right; exact (E Ho)]).
  destruct o; cbn [apply_op step_gate3 step_gate2 step_gate] in H, G;
    try (apply drop_status_some in H; destruct H as [st H]).
  - exact (Hfo _ (set_fragment_sh dbg u f u' W H)).
  - exact (Hfo _ (set_query_sh dbg u q u' W G H)).
  - destruct G as (G1 & G2 & G3 & G4). split; [exact (set_path_fr u p u' K G1 G2 G3 G4 H) | left; exact I].
  - exact (Hsh _ (set_port_sh dbg u p u' st WH G H)).
  - destruct h as [x|].
    + destruct G as [G1 G2]. exact (Hfk _ (set_host_some_frame u x u' st W G1 G2 H)).
    + exact (Hfk _ (set_host_none_frame u u' st W G H)).
  - destruct G as [G1 G2]. exact (Hfk _ (set_ip_host_frame u h u' st HI W G1 G2 H)).
  - exact (Hsh _ (set_password_sh dbg u p u' st WH H)).
  - exact (Hsh _ (set_username_sh dbg u s u' st WH H)).
  - exact (Hsh _ (set_scheme_sh dbg u s u' st WH H)).
  - destruct G as [G1 G2]. split; [exact (session_fr u ops u' st K G1 G2 H) | left; exact I].
  - unfold q_set_protocol in H. cbv zeta in H. exact (Hsh _ (set_scheme_sh dbg u _ u' st WH H)).
  - exact (Hsh _ (set_username_sh dbg u v u' st WH H)).
  - unfold q_set_password in H. exact (Hsh _ (set_password_sh dbg u _ u' st WH H)).
  - destruct G as [G1 G2]. exact (Hfk _ (q_set_host_frame u v u' st W G1 G2 H)).
  - destruct G as [G1 G2]. exact (Hfk _ (q_set_hostname_frame u v u' st W G1 G2 H)).
  - exact (Hsh _ (q_set_port_sh dbg u v u' st WH H)).
  - destruct G as (G1 & G2 & G3). split; [exact (q_set_pathname_fr u v u' K G1 G2 G3 H) | left; exact I].
  - unfold q_set_search in H. apply Hfo. eapply (set_query_sh dbg u); [exact W | | exact H].
    destruct v as [|c r]; [exact I|]. destruct (N.eq_dec c 63) as [->|Hc].
    + exact (usv_tail _ _ G).
    + unfold str_arg_ok. destruct c as [|q]; [exact G|]. do 6 (destruct q as [q|q|]; try exact G). contradiction.
  - unfold q_set_hash in H. exact (Hfo _ (set_fragment_sh dbg u _ u' W H)).
Qed.

Theorem frame_step3 u o u' : IpDisp hd -> CInv dbg u -> step_gate3 hp hpo hd u o u' ->
  apply_op dbg hp hpo hd u o = Some u' -> FR u u'.
Proof. intros HI K G H. exact (proj1 (step3_frame u o u' HI K G H)). Qed.

End Frames.
