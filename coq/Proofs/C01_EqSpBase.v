(* Proofs/C01_EqSpBase.v - C01 equivalence for scheme-less references against a `related` base with a SPECIAL
   non-file scheme (http, https, ws, wss, ftp) that has a host:
     class "special-authority"   two leading '/' or '\' (any mix, any number): relative -> relative slash ->
                                 special authority ignore slashes -> authority state on the scheme of the base;
     class "special path-absolute"  one leading '/' or '\';
     class "special path-relative"  anything else that is not '?', '#' or empty.
   Specification side: the no scheme, relative and relative slash states for a special base; then
   runs_authority_s / runs_path_s of Proofs/C01_EqSpSpec.v (generic in the base).  Model side:
   parse_relative with STSpecialNotFile: after_double_slash (model_sp of Proofs/C01_EqSp.v), resp. pop_path and
   parse_path (loop_exact_s of Proofs/C01_EqSpPath.v) and with_query_and_fragment. *)
From RU Require Import Base.Prelude Base.Utf8 Model.PercentEncoding Model.HostT Model.UrlRecord Model.Parser
  Model.Setters Model.WF Spec.Whatwg Proofs.ListN Proofs.C02_Parts Proofs.C02_Path Proofs.C02_PathL1
  Proofs.C03_WF Proofs.C08_Input Proofs.C01_EqRun Proofs.C01_EqEnc Proofs.C01_EqOpaque Proofs.C06_List
  Proofs.C06_WFI Proofs.C08_Simple Proofs.C08_Contain Proofs.C01_EqRef Proofs.C01_EqPath Proofs.C01_EqClasses
  Proofs.C01_EqAuthSpec Proofs.C01_EqAuthModel Proofs.C01_EqAuth Proofs.C01_EqClasses2 Proofs.C01_EqRel
  Proofs.C01_EqRelPath Proofs.C01_EqRelArms Proofs.C01_EqRelBase Proofs.C01_EqSpSpec Proofs.C01_EqSpPath
  Proofs.C01_EqSpModel Proofs.C01_EqSp Proofs.C01_EqAbs.

(* the special path state started on the segment list P0 (empty buffer), on the text t *)
Definition rel_path_result_s (sb : spec_url) (P0 : list (list N)) (t : list N) : spec_url :=
  tail_url (rel_keep sb (fst (spath_s t P0 []))) (snd (spath_s t P0 [])).

(* specification side *)
Lemma rel_keep_special sb : is_special_scheme (su_scheme sb) = true -> forall P, is_special (rel_keep sb P) = true.
Proof. intros Hsp P. unfold is_special, rel_keep. cbn [su_scheme]. exact Hsp. Qed.

(* the three arms of the relative state (authority, absolute path, relative path), entered at ANY position:
   at the start for scheme-less references, behind "scheme:" for references that carry the scheme of the
   base ("http:x" against an http base) *)
Section SpecRelG.
Variable shp : bool -> list N -> option spec_host.
Variable inp : list N.
Variable sb : spec_url.
Hypothesis Hop : has_opaque_path sb = false.
Hypothesis Hsp : is_special_scheme (su_scheme sb) = true.
Hypothesis Hnf : list_eqb (su_scheme sb) str_file = false.
Variable pre : list N.                 (* the text in front of the relative state's position *)
Variable ux : spec_url.                (* the URL the relative state starts with *)
Hypothesis Hux : set_scheme ux (su_scheme sb) = set_scheme empty_url (su_scheme sb).

Notation RunsB := (Runs shp inp (Some sb)).
Notation u0 := (set_scheme empty_url (su_scheme sb)).

Lemma runs_relative_slash_g c t res : inp = pre ++ c :: t -> is_sl c = true ->
  RunsB (at_pos StRelativeSlash (pre ++ [c]) [] false false false u0) res ->
  RunsB (at_pos StRelative pre [] false false false ux) res.
Proof.
  intros Hin Hc HR.
  eapply (runs_step_next shp inp (Some sb) StRelative pre c t) with (st' := StRelativeSlash) (buf' := []);
    [exact Hin | | exact HR].
  rewrite (step_unfold shp inp (Some sb) _ pre (c :: t)) by exact Hin. cbn zeta. cbn [hd_error].
  unfold st_relative. cbn [m_url at_pos]. rewrite Hux. unfold is_special. cbn [cis su_scheme set_scheme empty_url]. rewrite Hsp.
  destruct (c =? 47) eqn:E47; [reflexivity|]. unfold is_sl in Hc. rewrite E47 in Hc. cbn [orb] in Hc. rewrite Hc. reflexivity.
Qed.

Theorem runs_rel_authority_g c1 c2 T : inp = pre ++ c1 :: c2 :: T -> is_sl c1 = true -> is_sl c2 = true ->
  out_is shp inp (Some sb) (at_pos StRelative pre [] false false false ux) (sauth_s shp (su_scheme sb) (drop_sl T)).
Proof.
  intros Hin H1 H2.
  assert (inp = ((pre ++ [c1; c2]) ++ take_sl T) ++ drop_sl T) as Hin3.
  { rewrite <- !app_assoc. cbn [app]. rewrite take_drop_sl. exact Hin. }
  assert (forall res, RunsB (at_pos StAuthority ((pre ++ [c1; c2]) ++ take_sl T) [] false false false u0) res ->
                      RunsB (at_pos StRelative pre [] false false false ux) res) as K.
  { intros res HR.
    apply (runs_relative_slash_g c1 (c2 :: T) res Hin H1).
    assert (inp = (pre ++ [c1]) ++ c2 :: T) as Hin1 by (rewrite <- app_assoc; exact Hin).
    eapply (runs_step_next shp inp (Some sb) StRelativeSlash (pre ++ [c1]) c2 T) with (st' := StSpecialAuthorityIgnoreSlashes) (buf' := []);
      [exact Hin1 | |].
    - rewrite (step_unfold shp inp (Some sb) _ (pre ++ [c1]) (c2 :: T)) by exact Hin1. cbn zeta. cbn [hd_error].
      unfold st_relative_slash, is_special. cbn [m_url at_pos su_scheme set_scheme empty_url cis]. rewrite Hsp.
      change ((c2 =? 47) || (c2 =? 92)) with (is_sl c2). rewrite H2. reflexivity.
    - apply (runs_ignore_slashes shp inp (Some sb) (take_sl T) ((pre ++ [c1]) ++ [c2]) (drop_sl T) false false false u0 res).
      + rewrite take_drop_sl. rewrite <- !app_assoc. exact Hin.
      + apply take_sl_all.
      + apply drop_sl_head.
      + rewrite <- (app_assoc pre [c1] [c2]). exact HR. }
  pose proof (runs_authority_s shp inp (Some sb) _ (drop_sl T) (su_scheme sb) Hin3 Hsp Hnf) as RA.
  destruct (sauth_s shp (su_scheme sb) (drop_sl T)) as [su|]; cbn [out_is] in *.
  - apply K. exact RA.
  - destruct RA as [uf RA]. exists uf. apply K. exact RA.
Qed.

Theorem runs_rel_abs_g c t : inp = pre ++ c :: t -> is_sl c = true ->
  match t with c2 :: _ => is_sl c2 = false | [] => True end ->
  RunsB (at_pos StRelative pre [] false false false ux) (BDone (rel_path_result_s sb [] t)).
Proof.
  intros Hin Hc Ht.
  apply (runs_relative_slash_g c t _ Hin Hc).
  assert (inp = (pre ++ [c]) ++ t) as Hin2 by (rewrite <- app_assoc; exact Hin).
  eapply (runs_step_back shp inp (Some sb) StRelativeSlash (pre ++ [c]) t) with (st' := StPath) (buf' := []) (u' := rel_keep sb []);
    [exact Hin2 | |].
  - rewrite (step_unfold shp inp (Some sb) _ (pre ++ [c]) t) by exact Hin2. cbn zeta.
    unfold st_relative_slash, is_special. cbn [m_url at_pos su_scheme set_scheme empty_url]. rewrite Hsp.
    cbn [andb].
    assert (cis (hd_error t) 47 || cis (hd_error t) 92 = false) as E.
    { destruct t as [|c2 r]; [reflexivity|]. cbn [hd_error cis]. exact Ht. }
    rewrite E. apply orb_false_iff in E. destruct E as [E _]. rewrite E. reflexivity.
  - exact (runs_path_s shp inp (Some sb) t (pre ++ [c]) [] false false false (rel_keep sb []) [] Hin2 eq_refl
             (rel_keep_special sb Hsp []) Hnf).
Qed.

Theorem runs_rel_path_g c t : inp = pre ++ c :: t ->
  is_sl c = false -> (c =? 63) = false -> (c =? 35) = false ->
  RunsB (at_pos StRelative pre [] false false false ux)
        (BDone (rel_path_result_s sb (removelast (path_segments sb)) (c :: t))).
Proof.
  intros Hin Esl E63 E35.
  assert (su_path sb = SPList (path_segments sb)) as HP.
  { unfold path_segments. unfold has_opaque_path in Hop. destruct (su_path sb); [discriminate Hop | reflexivity]. }
  unfold is_sl in Esl. apply orb_false_iff in Esl. destruct Esl as [E47 E92].
  eapply (runs_step_stay shp inp (Some sb) StRelative pre (c :: t)) with (st' := StPath) (buf' := [])
    (u' := rel_keep sb (removelast (path_segments sb))); [exact Hin | discriminate | |].
  - rewrite (step_unfold shp inp (Some sb) _ pre (c :: t)) by exact Hin. cbn zeta. cbn [hd_error].
    unfold st_relative. cbn [m_url at_pos]. rewrite Hux. unfold is_special.
    cbn [cis su_scheme set_scheme empty_url]. rewrite Hsp, E47, E92, E63, E35.
    cbn [andb is_eof negb].
    unfold shorten_path.
    cbn [su_path su_scheme set_query set_path set_port set_host set_password set_username set_scheme empty_url].
    rewrite HP, Hnf. cbn [andb]. reflexivity.
  - exact (runs_path_s shp inp (Some sb) (c :: t) pre [] false false false (rel_keep sb (removelast (path_segments sb)))
             (removelast (path_segments sb)) Hin eq_refl (rel_keep_special sb Hsp _) Hnf).
Qed.

End SpecRelG.

(* scheme-less references: no scheme state, then the relative state at the start of the text *)
Section SpecRelS.
Variable shp : bool -> list N -> option spec_host.
Variable inp : list N.                 (* the cleaned reference *)
Variable sb : spec_url.
Hypothesis Hop : has_opaque_path sb = false.
Hypothesis Hsp : is_special_scheme (su_scheme sb) = true.
Hypothesis Hnf : list_eqb (su_scheme sb) str_file = false.

Notation RunsB := (Runs shp inp (Some sb)).

Lemma runs_to_relative_s res : spec_scheme inp = None -> inp <> [] ->
  RunsB (at_pos StRelative [] [] false false false empty_url) res -> RunsB m0 res.
Proof.
  intros Hs Hne HR. apply runs_no_scheme; [exact Hs|].
  eapply (runs_step_stay shp inp (Some sb) StNoScheme [] inp) with (st' := StRelative) (buf' := []);
    [reflexivity | exact Hne | | exact HR].
  rewrite (step_unfold shp inp (Some sb) _ [] inp) by reflexivity. cbn zeta.
  unfold st_no_scheme. rewrite Hop, Hnf. cbn [andb negb]. reflexivity.
Qed.

(* two leading slashes / backslashes, then any number more: the authority state on the rest *)
Theorem runs_rel_authority_s c1 c2 T : inp = c1 :: c2 :: T -> is_sl c1 = true -> is_sl c2 = true ->
  spec_scheme inp = None ->
  out_is shp inp (Some sb) m0 (sauth_s shp (su_scheme sb) (drop_sl T)).
Proof.
  intros Hin H1 H2 Hs.
  assert (inp <> []) as Hne by (rewrite Hin; discriminate).
  pose proof (runs_rel_authority_g shp inp sb Hsp Hnf [] empty_url eq_refl c1 c2 T Hin H1 H2) as RA.
  destruct (sauth_s shp (su_scheme sb) (drop_sl T)) as [su|]; cbn [out_is] in *.
  - exact (runs_to_relative_s _ Hs Hne RA).
  - destruct RA as [uf RA]. exists uf. exact (runs_to_relative_s _ Hs Hne RA).
Qed.

(* one leading slash / backslash: relative slash state, then the path state on the rest with an empty path *)
Theorem runs_rel_abs_s c t : inp = c :: t -> is_sl c = true ->
  match t with c2 :: _ => is_sl c2 = false | [] => True end -> spec_scheme inp = None ->
  RunsB m0 (BDone (rel_path_result_s sb [] t)).
Proof.
  intros Hin Hc Ht Hs. apply runs_to_relative_s; [exact Hs | rewrite Hin; discriminate|].
  exact (runs_rel_abs_g shp inp sb Hsp Hnf [] empty_url eq_refl c t Hin Hc Ht).
Qed.

(* anything else that is not '?', '#': the base's path without its last segment, then the path state *)
Theorem runs_rel_path_s c t : inp = c :: t -> spec_scheme inp = None ->
  is_sl c = false -> (c =? 63) = false -> (c =? 35) = false ->
  RunsB m0 (BDone (rel_path_result_s sb (removelast (path_segments sb)) inp)).
Proof.
  intros Hin Hs Esl E63 E35. apply runs_to_relative_s; [exact Hs | rewrite Hin; discriminate|].
  rewrite Hin at 2.
  exact (runs_rel_path_g shp inp sb Hop Hsp Hnf [] empty_url eq_refl c t Hin Esl E63 E35).
Qed.

End SpecRelS.

(* model side: from parse_url to parse_relative *)
Lemma parse_url_relative_s dbg hp hpo hd ovr b input c t :
  cannot_be_a_base b = Some false -> scheme_type_of (b_scheme b) = STSpecialNotFile ->
  ntnl (input_new_trim_c0 input) = c :: t -> spec_scheme (c :: t) = None -> (c =? 35) = false ->
  parse_url dbg hp hpo hd ovr (Some b) input
  = parse_relative dbg hp hpo hd ovr CUrlParser STSpecialNotFile b (input_new_trim_c0 input).
Proof.
  intros Hcb Hst Ht Hs E35. unfold parse_url. set (l := input_new_trim_c0 input) in *.
  pose proof (scheme_state_eq l) as K. rewrite Ht, Hs in K.
  destruct (parse_scheme CUrlParser l) as [[s r]|]; [contradiction|].
  destruct (inp_next_some l c t Ht) as (r & En & _ & _).
  unfold inp_starts_with_char. rewrite En, E35, Hcb, Hst. reflexivity.
Qed.

(* the slash test of parse_relative for a special scheme is is_sl *)
Definition sl_sp (d : N) : bool := (d =? 47) || ((d =? 92) && true).

Lemma sl_sp_is_sl d : sl_sp d = is_sl d.
Proof. unfold sl_sp, is_sl. rewrite andb_true_r. reflexivity. Qed.

Lemma drop_leading_ext (f g : N -> bool) t : (forall d, f d = g d) -> drop_leading f t = drop_leading g t.
Proof. intros H. induction t as [|c r IH]; [reflexivity|]. cbn [drop_leading]. rewrite H, IH. reflexivity. Qed.

Lemma count_leading_ext (f g : N -> bool) t : (forall d, f d = g d) -> count_leading f t = count_leading g t.
Proof. intros H. induction t as [|c r IH]; [reflexivity|]. cbn [count_leading]. rewrite H, IH. reflexivity. Qed.

Lemma special_type_related dbg shs b sb : related dbg shs b sb ->
  is_special_scheme (su_scheme sb) = true -> list_eqb (su_scheme sb) str_file = false ->
  scheme_type_of (b_scheme b) = STSpecialNotFile.
Proof. intros R H1 H2. rewrite (rel_sch _ _ _ _ R). exact (special_type _ H1 H2). Qed.

(* class "special-authority" *)
Definition in_class_rel_authority_s (sb : spec_url) (input : list N) : bool :=
  negb (has_opaque_path sb) && is_special_scheme (su_scheme sb) && negb (list_eqb (su_scheme sb) str_file)
  && match spec_clean input with
     | c1 :: c2 :: T => is_sl c1 && is_sl c2 && sp_class_ok (drop_sl T)
     | _ => false
     end.

Definition rel_host_text_s (input : list N) : list N :=
  match spec_clean input with
  | _ :: _ :: T => sp_host_text (drop_sl T)
  | _ => []
  end.

Lemma is_sl_scheme_none c t : is_sl c = true -> spec_scheme (c :: t) = None.
Proof.
  intros H. unfold spec_scheme. assert (is_alpha c = false) as ->; [|reflexivity].
  unfold is_sl in H. unfold is_alpha, is_upper, is_lower. lia.
Qed.

Section RelAuthorityS.
Variable dbg : bool.
Variable hp hpo : list N -> result host.
Variable hd : host -> list N.
Variable shp : bool -> list N -> option spec_host.
Variable shs : spec_host -> list N.

Theorem class_rel_authority_s input b sb : usv_list input -> related dbg shs b sb ->
  scheme_canon (su_scheme sb) = true -> in_class_rel_authority_s sb input = true ->
  host_agree_sp hp hd shp shs (rel_host_text_s input) ->
  agree_rel_strict dbg shs (parse_url dbg hp hpo hd None (Some b) input) (spec_basic_url_parse shp input (Some sb)).
Proof.
  intros Hu R Hcan Hc HA. unfold in_class_rel_authority_s, rel_host_text_s in *.
  apply andb_true_iff in Hc. destruct Hc as [Hc Hok]. apply andb_true_iff in Hc. destruct Hc as [Hc Hnf].
  apply andb_true_iff in Hc. destruct Hc as [Hop Hsp]. apply negb_true_iff in Hop, Hnf.
  destruct (spec_clean input) as [|c1 [|c2 T]] eqn:Ecl; try discriminate Hok.
  apply andb_true_iff in Hok. destruct Hok as [Hok Hok3]. apply andb_true_iff in Hok. destruct Hok as [H1 H2].
  unfold sp_class_ok in Hok3.
  pose proof (is_sl_scheme_none c1 (c2 :: T) H1) as Hs.
  (* the Standard *)
  assert (out_is shp (spec_clean input) (Some sb) m0 (sauth_s shp (su_scheme sb) (drop_sl T))) as HS.
  { rewrite Ecl. apply (runs_rel_authority_s shp _ sb Hop Hsp Hnf c1 c2 T eq_refl H1 H2 Hs). }
  (* the model *)
  pose proof (special_type _ Hsp Hnf) as Hst.
  pose proof (special_type_related dbg shs b sb R Hsp Hnf) as Hstb.
  rewrite spec_clean_is_ntnl_trim in Ecl. set (l0 := input_new_trim_c0 input) in *.
  assert (usv_list l0) as Hul0 by (apply usv_trim; exact Hu).
  assert ((c1 =? 35) = false) as E35 by (unfold is_sl in H1; lia).
  assert ((c1 =? 63) = false) as E63 by (unfold is_sl in H1; lia).
  set (l := snd (inp_count_matching sl_sp l0)).
  assert (ntnl l = drop_sl T) as Hl.
  { unfold l. rewrite (proj1 (count_matching_ntnl sl_sp l0)), Ecl. rewrite (drop_leading_ext sl_sp is_sl _ sl_sp_is_sl).
    cbn [drop_leading]. rewrite H1, H2. reflexivity. }
  assert (usv_list l) as Hul by (apply count_matching_usv'; exact Hul0).
  assert (parse_url dbg hp hpo hd None (Some b) input
          = after_double_slash dbg hp hpo hd None CUrlParser STSpecialNotFile (nlen (su_scheme sb)) (su_scheme sb ++ [58]) l) as Epu.
  { rewrite (parse_url_relative_s dbg hp hpo hd None b input c1 (c2 :: T)
               (related_not_cbb dbg shs b sb R Hop) Hstb Ecl Hs E35).
    fold l0. unfold parse_relative, inp_split_first.
    destruct (inp_next_some l0 c1 (c2 :: T) Ecl) as (r1 & En & _ & _). rewrite En. rewrite E63, E35.
    cbn [st_is_special]. fold (sl_sp c1). rewrite (sl_sp_is_sl c1), H1.
    change (fun d : N => (d =? 47) || (d =? 92) && true) with sl_sp.
    destruct (inp_count_matching sl_sp l0) as [sl rem'] eqn:Ecm.
    assert (2 <= sl) as Hsl.
    { pose proof (inp_count_matching_fst sl_sp l0) as Hf. rewrite Ecm in Hf. cbn [fst] in Hf. rewrite Hf, Ecl.
      rewrite (count_leading_ext sl_sp is_sl _ sl_sp_is_sl). cbn [count_leading]. rewrite H1, H2. lia. }
    replace (2 <=? sl) with true by lia.
    destruct (related_scheme_colon dbg shs b sb R) as (E1 & E2 & E3).
    rewrite E3. replace (58 =? 58) with true by reflexivity.
    unfold dassert. cbn [negb]. rewrite andb_false_r. cbn [pbind].
    rewrite E1, E2. unfold l. try rewrite Ecm. reflexivity. }
  rewrite <- Hl in Hok3, HA.
  assert (starts_aes (sp_path_text (ntnl l)) = true -> spath_ok_s (path_text_s (sp_path_text (ntnl l))) [] [] = true) as Hok'.
  { intros K. rewrite K in Hok3. exact Hok3. }
  pose proof (model_sp dbg hp hpo hd shp shs (su_scheme sb) l Hul Hcan Hst Hok' HA) as HM. cbv zeta in HM.
  rewrite Hl in HM. rewrite Epu.
  assert (forall res, Runs shp (spec_clean input) (Some sb) m0 res ->
                      spec_basic_url_parse shp input (Some sb) = res) as Hrun
    by (intros res HR; apply spec_parse_of_runs; exact HR).
  destruct (sauth_s shp (su_scheme sb) (drop_sl T)) as [su|]; cbn [out_is] in HS.
  - rewrite (Hrun _ HS). cbn [agree_rel_strict]. destruct HM as (u & HO & Ru & Hle).
    pose proof (related_href dbg shs u su Ru) as Eh. rewrite <- Eh.
    destruct HO as [[E B]|E]; [left; split; assumption | right; exists u; split; assumption].
  - destruct HS as [uf HS]. rewrite (Hrun _ HS). cbn [agree_rel_strict]. exact HM.
Qed.

Theorem rel_authority_s_result_ok input sb su : scheme_canon (su_scheme sb) = true ->
  in_class_rel_authority_s sb input = true ->
  spec_basic_url_parse shp input (Some sb) = BDone su -> spec_base_ok su = true.
Proof.
  intros Hcan Hc HSu. unfold in_class_rel_authority_s in Hc.
  apply andb_true_iff in Hc. destruct Hc as [Hc Hok]. apply andb_true_iff in Hc. destruct Hc as [Hc Hnf].
  apply andb_true_iff in Hc. destruct Hc as [Hop Hsp]. apply negb_true_iff in Hop, Hnf.
  destruct (spec_clean input) as [|c1 [|c2 T]] eqn:Ecl; try discriminate Hok.
  apply andb_true_iff in Hok. destruct Hok as [Hok _]. apply andb_true_iff in Hok. destruct Hok as [H1 H2].
  pose proof (is_sl_scheme_none c1 (c2 :: T) H1) as Hs.
  pose proof (runs_rel_authority_s shp _ sb Hop Hsp Hnf c1 c2 T eq_refl H1 H2 Hs) as HS. rewrite <- Ecl in HS.
  destruct (sauth_s shp (su_scheme sb) (drop_sl T)) as [su'|] eqn:Esa; cbn [out_is] in HS.
  - rewrite (spec_parse_of_runs _ _ _ _ HS) in HSu. inversion HSu; subst su'.
    unfold sauth_s in Esa. revert Esa. generalize (snd (after_at_s (drop_sl T))). intros HR Esa.
    (* spec_base_ok of what the host state returns *)
    assert (scheme_canon (su_scheme (cred_of (fst (after_at_s (drop_sl T))) (set_scheme empty_url (su_scheme sb)))) = true) as Hc'.
    { destruct (fst (after_at_s (drop_sl T))) as [w|]; cbn [cred_of]; [rewrite ac_scheme|]; exact Hcan. }
    revert Esa Hc'. generalize (cred_of (fst (after_at_s (drop_sl T))) (set_scheme empty_url (su_scheme sb))). intros u1 Esa Hc'.
    unfold sauth_host_g in Esa. cbv zeta in Esa.
    destruct (is_nil ([] ++ hss_host false HR)); [discriminate Esa|].
    destruct (host_parsing shp false ([] ++ hss_host false HR)) as [sh|]; [|discriminate Esa].
    assert (forall u X, scheme_canon (su_scheme u) = true -> spec_base_ok (sauth_tail_s u X) = true) as Htail.
    { intros u X Hcu. unfold sauth_tail_s. rewrite (base_ok_same _ _ (tail_url_same _ _)).
      unfold spec_base_ok, Whatwg.path_segments. cbn [su_scheme su_path set_path]. rewrite Hcu.
      rewrite (spath_s_no_slash (path_text_s X) [] [] eq_refl eq_refl). reflexivity. }
    destruct (port_split (hss_rest false HR)) as [PR|].
    + unfold sauth_port_g in Esa. cbv zeta in Esa.
      destruct (negb (starts_aes (after_digits PR))); [discriminate Esa|].
      destruct (is_nil ([] ++ digits_of PR)).
      * inversion Esa. apply Htail. exact Hc'.
      * destruct (65535 <? decimal_value ([] ++ digits_of PR)); [discriminate Esa|].
        inversion Esa. apply Htail. exact Hc'.
    + inversion Esa. apply Htail. exact Hc'.
  - destruct HS as [uf HS]. rewrite (spec_parse_of_runs _ _ _ _ HS) in HSu. discriminate HSu.
Qed.

End RelAuthorityS.

(* the two path arms *)
Lemma pop_path_segments_s pre P : forallb no_slash P = true ->
  pop_path STSpecialNotFile (nlen pre) (pre ++ flat_map (fun s => 47 :: s) P)
  = POk (match P with [] => pre | _ => Bs pre (removelast P) end).
Proof. exact (pop_path_segments_st STSpecialNotFile pre P eq_refl). Qed.

Lemma segs_no_qh_of_flat (P : list (list N)) :
  forallb C06_WFI.no_qh (flat_map (fun s => 47 :: s) P) = true -> forallb C01_EqSpPath.no_qh P = true.
Proof.
  induction P as [|s P IH]; intros H; [reflexivity|]. cbn [flat_map] in H. cbn [app forallb] in H.
  apply andb_true_iff in H. destruct H as [_ H]. rewrite forallb_app in H. apply andb_true_iff in H. destruct H as [H1 H2].
  cbn [forallb]. rewrite (IH H2), andb_true_r. exact H1.
Qed.

Lemma loop_from_segments_s dbg pre r P0 : usv_list r -> forallb no_slash P0 = true ->
  spath_ok_s (ntnl r) P0 [] = true ->
  forallb C06_WFI.no_qh (flat_map (fun s => 47 :: s) P0) = true ->
  let P1 := fst (spath_s (ntnl r) P0 []) in
  parse_path dbg CUrlParser STSpecialNotFile true (nlen pre) (Bs pre P0) r
    = POk (pre ++ flat_map (fun s => 47 :: s) P1, true, cbb_rest r)
  /\ snd (spath_s (ntnl r) P0 []) = ntnl (cbb_rest r)
  /\ forallb C06_WFI.no_qh (flat_map (fun s => 47 :: s) P1) = true
  /\ forallb no_slash P1 = true /\ P1 <> [].
Proof.
  intros Hur Hns Hok Hqh P1.
  assert (pend_ok []) as Hp0 by (split; [constructor | reflexivity]).
  destruct (loop_exact_s pre dbg r P0 [] [] true Hur Hp0 Hns eq_refl Hok) as (segs & last & Hloop & Hfst & Hsnd).
  cbn [app rev utf8_encode flat_map encode] in Hfst, Hsnd.
  rewrite app_nil_r in Hloop.
  assert (Bs pre segs ++ last = pre ++ flat_map (fun s => 47 :: s) P1) as ES.
  { unfold P1. rewrite Hfst, path_text_flat. unfold Bs, path_text. rewrite <- !app_assoc. reflexivity. }
  split; [|split; [exact Hsnd|split; [|split]]].
  - unfold parse_path. rewrite Hloop, ES. reflexivity.
  - apply flat_no_qh. unfold P1. apply spath_s_no_qh; [exact (segs_no_qh_of_flat P0 Hqh) | reflexivity].
  - unfold P1. apply spath_s_no_slash; [exact Hns | reflexivity].
  - unfold P1. rewrite Hfst. intros K. apply app_eq_nil in K. destruct K as [_ K]. discriminate K.
Qed.

Lemma wqf_plain_s se ue hs he hi po ps s rest : se + 3 <= ps ->
  starts_with s_css (nskipn se s) = true ->
  with_query_and_fragment None CUrlParser STSpecialNotFile se ue hs he hi po ps s rest
  = (' (s2, qs, fs) <~ parse_query_and_fragment None CUrlParser STSpecialNotFile se s rest ;;
     POk (mkUrl s2 se ue hs he hi po ps qs fs)).
Proof. exact (wqf_plain_st None STSpecialNotFile se ue hs he hi po ps s rest). Qed.

Section ArmsS.
Variable dbg : bool.
Variable shs : spec_host -> list N.

Definition arm_expr_s (b : url) (s0 r : list N) : pres url :=
  ' (s, _, rem) <~ parse_path dbg CUrlParser STSpecialNotFile true (path_start b) s0 r ;;
  with_query_and_fragment None CUrlParser STSpecialNotFile (scheme_end b) (username_end b) (host_start b) (host_end b)
                          (hosti b) (port b) (path_start b) s rem.

Theorem path_arm_related_s b sb h P0 r :
  related dbg shs b sb -> has_opaque_path sb = false -> is_special_scheme (su_scheme sb) = true ->
  list_eqb (su_scheme sb) str_file = false -> su_host sb = Some h ->
  scheme_canon (su_scheme sb) = true ->
  usv_list r -> forallb no_slash P0 = true -> forallb C06_WFI.no_qh (flat_map (fun s => 47 :: s) P0) = true ->
  spath_ok_s (ntnl r) P0 [] = true ->
  exists u, oob (U32_MAX_P < nlen (ser u)) (arm_expr_s b (Bs (nfirstn (path_start b) (ser b)) P0) r) u
            /\ related dbg shs u (rel_path_result_s sb P0 (ntnl r))
            /\ spec_base_ok (rel_path_result_s sb P0 (ntnl r)) = true.
Proof.
  intros R Hop Hsp Hnf Eh Hcan Hur Hns0 Hqh0 Hok.
  pose proof (rel_wf _ _ _ _ R) as W. pose proof (path_start_le_len b W) as Lps.
  set (pre := nfirstn (path_start b) (ser b)).
  assert (nlen pre = path_start b) as Lpre by (apply nlen_nfirstn; exact Lps).
  destruct (loop_from_segments_s dbg pre r P0 Hur Hns0 Hok Hqh0) as (Hpp & Hsnd & Hqh1 & Hns1 & Hne1).
  rewrite Lpre in Hpp.
  set (P1 := fst (spath_s (ntnl r) P0 [])) in *.
  set (T := flat_map (fun s => 47 :: s) P1) in *.
  set (rest := cbb_rest r) in *.
  set (q := pqf_q STSpecialNotFile rest). set (f := pqf_f rest).
  assert (usv_list rest) as Hurest by (apply usv_cbb_rest; exact Hur).
  assert (rel_path_result_s sb P0 (ntnl r) = rel_url sb P1 q f) as ES.
  { unfold rel_path_result_s. fold P1. rewrite Hsnd. fold rest.
    rewrite (tail_url_st STSpecialNotFile); [reflexivity | unfold is_special, rel_keep; cbn [su_scheme]; exact Hsp | reflexivity | reflexivity | apply cbb_rest_head]. }
  rewrite ES.
  assert (spec_base_ok (rel_url sb P1 q f) = true) as HBok.
  { unfold spec_base_ok, rel_url. cbn [su_scheme Whatwg.path_segments su_path]. rewrite Hcan, Hns1. reflexivity. }
  assert (match ntnl rest with [] => True | c :: _ => is_qh c = true end) as Hhead.
  { pose proof (cbb_rest_head r) as Hh. fold rest in Hh. destruct rest as [|d dr]; [exact I|]. destruct Hh as [Hh1 Hh2].
    rewrite ntnl_cons by exact Hh2. exact Hh1. }
  assert (has_authority_b b = true) as Ha by (rewrite (related_host_iff dbg shs b sb R), Eh; reflexivity).
  pose proof (wf_auth_facts b W Ha) as F.
  pose proof (af_ue F) as B1. pose proof (af_hs F) as B2. pose proof (af_he F) as B3. pose proof (af_ps F) as B4.
  unfold arm_expr_s. fold pre. rewrite Hpp. cbn [pbind].
  exists (auth_path_url b T q f). split; [|split; [|exact HBok]].
  - rewrite wqf_plain_s; [|lia|].
    2:{ unfold has_authority_b in Ha. rewrite <- Ha.
        apply (pre_starts_with (path_start b)); [|change (nlen s_css) with 3; lia].
        apply agree_pre_nfirstn. exact Lps. }
    eapply oob_bind.
    { apply (pqf_oob None (U32_MAX_P < nlen (ser (auth_path_url b T q f)))); [exact Hurest | reflexivity | exact Hhead |].
      fold q f. intros Hlt. exact Hlt. }
    fold q f. right. reflexivity.
  - apply (related_auth_path_g dbg shs b sb h P1 q f R); [| exact Eh | exact Hqh1 | exact Hne1 |].
    + intros E. rewrite E in Hnf. discriminate Hnf.
    + pose proof (pqf_q_clean_s rest Hurest) as Hq. fold q in Hq. destruct q as [Q|]; [|exact I].
      exact (clean_query_no_h STSpecialNotFile Q Hq).
Qed.

End ArmsS.

(* recognisers on the Standard's side: base not opaque, special, not file, WITH a host (true of every
   parse result with a special scheme); exclusion, in both: a ".." that would pop a drive-letter-shaped
   segment (F-C01-9, Known_C01 class 2) - spath_ok_s runs the Standard's own special path state *)
Definition sp_base_ok (sb : spec_url) : bool :=
  negb (has_opaque_path sb) && is_special_scheme (su_scheme sb) && negb (list_eqb (su_scheme sb) str_file)
  && opt_is_some (su_host sb).

Definition in_class_rel_abs_s (sb : spec_url) (input : list N) : bool :=
  sp_base_ok sb
  && match spec_clean input with
     | c :: t => is_sl c && negb (match t with c2 :: _ => is_sl c2 | [] => false end) && spath_ok_s t [] []
     | [] => false
     end.

Definition in_class_rel_path_s (sb : spec_url) (input : list N) : bool :=
  sp_base_ok sb
  && match spec_scheme (spec_clean input) with None => true | Some _ => false end
  && match spec_clean input with
     | c :: t => negb (is_sl c) && negb (c =? 63) && negb (c =? 35)
                 && spath_ok_s (c :: t) (removelast (Whatwg.path_segments sb)) []
     | [] => false
     end.

Lemma sp_base_ok_facts sb : sp_base_ok sb = true ->
  has_opaque_path sb = false /\ is_special_scheme (su_scheme sb) = true /\ list_eqb (su_scheme sb) str_file = false
  /\ exists h, su_host sb = Some h.
Proof.
  unfold sp_base_ok. intros H. apply andb_true_iff in H. destruct H as [H H4]. apply andb_true_iff in H. destruct H as [H H3].
  apply andb_true_iff in H. destruct H as [H1 H2]. apply negb_true_iff in H1, H3.
  repeat split; try assumption. destruct (su_host sb) as [h|]; [exists h; reflexivity | discriminate H4].
Qed.

Lemma removelast_prefix_no_qh_s (P : list (list N)) :
  forallb C06_WFI.no_qh (flat_map (fun s => 47 :: s) P) = true ->
  forallb C06_WFI.no_qh (flat_map (fun s => 47 :: s) (removelast P)) = true.
Proof.
  intros H. destruct (rev P) as [|x r] eqn:Er.
  - assert (P = []) as -> by (rewrite <- (rev_involutive P), Er; reflexivity). reflexivity.
  - assert (P = rev r ++ [x]) as -> by (rewrite <- (rev_involutive P), Er; reflexivity).
    rewrite removelast_last. rewrite flat_map_snoc, forallb_app in H. apply andb_true_iff in H. tauto.
Qed.

(* parse_relative on any remaining input (model side, special base) *)
Section ParseRelativeS.
Variable dbg : bool.
Variable hp hpo : list N -> result host.
Variable hd : host -> list N.
Variable shs : spec_host -> list N.

Lemma parse_relative_abs_s b l c t : usv_list l -> ntnl l = c :: t -> is_sl c = true ->
  match t with c2 :: _ => is_sl c2 = false | [] => True end ->
  exists r1, ntnl r1 = t /\ usv_list r1
    /\ parse_relative dbg hp hpo hd None CUrlParser STSpecialNotFile b l
       = arm_expr_s dbg b (Bs (nfirstn (path_start b) (ser b)) []) r1.
Proof.
  intros Hul Ecl Hc1 Ht.
  destruct (inp_next_some l c t Ecl) as (r1 & En & Er1 & _).
  exists r1. split; [exact Er1|]. split; [exact (inp_next_usv l c r1 Hul En)|].
  assert ((c =? 35) = false) as E35 by (unfold is_sl in Hc1; lia).
  assert ((c =? 63) = false) as E63 by (unfold is_sl in Hc1; lia).
  unfold parse_relative, inp_split_first. rewrite En. rewrite E63, E35.
  cbn [st_is_special]. fold (sl_sp c). rewrite (sl_sp_is_sl c), Hc1.
  change (fun d : N => (d =? 47) || (d =? 92) && true) with sl_sp.
  destruct (inp_count_matching sl_sp l) as [sl rem'] eqn:Ecm.
  assert (sl < 2) as Hsl.
  { pose proof (inp_count_matching_fst sl_sp l) as Hf. rewrite Ecm in Hf. cbn [fst] in Hf. rewrite Hf, Ecl.
    rewrite (count_leading_ext sl_sp is_sl _ sl_sp_is_sl). cbn [count_leading]. rewrite Hc1.
    destruct t as [|d t']; [cbn [count_leading]; lia|]. cbn [count_leading]. rewrite Ht. lia. }
  replace (2 <=? sl) with false by lia.
  unfold arm_expr_s. assert (Bs (nfirstn (path_start b) (ser b)) [] = nfirstn (path_start b) (ser b) ++ [47]) as ->
    by (unfold Bs; cbn [segs_text map concat]; apply app_nil_r).
  reflexivity.
Qed.

Lemma parse_relative_path_s b sb l c t : related dbg shs b sb -> has_opaque_path sb = false ->
  is_special_scheme (su_scheme sb) = true -> list_eqb (su_scheme sb) str_file = false ->
  forallb no_slash (Whatwg.path_segments sb) = true ->
  ntnl l = c :: t -> is_sl c = false -> (c =? 63) = false -> (c =? 35) = false ->
  parse_relative dbg hp hpo hd None CUrlParser STSpecialNotFile b l
  = arm_expr_s dbg b (Bs (nfirstn (path_start b) (ser b)) (removelast (Whatwg.path_segments sb))) l.
Proof.
  intros R Hop Hsp Hnf HnsP Ecl Esl E63 E35.
  destruct (base_path_facts dbg shs b sb R Hop) as (Lpre & Ebq & _).
  set (P := Whatwg.path_segments sb) in *. set (pre := nfirstn (path_start b) (ser b)) in *.
  destruct (inp_next_some l c t Ecl) as (r1 & En & Er1 & _).
  pose proof (special_type_related dbg shs b sb R Hsp Hnf) as Hstb.
  assert ((c =? 47) = false) as E47 by (unfold is_sl in Esl; lia).
  unfold parse_relative, inp_split_first. rewrite En. rewrite E63, E35.
  cbn [st_is_special]. fold (sl_sp c). rewrite (sl_sp_is_sl c), Esl.
  rewrite Ebq, <- Lpre.
  rewrite (pop_path_segments_s pre P HnsP). cbn [pbind].
  rewrite Hstb. cbn [st_is_special orb]. rewrite andb_true_r.
  rewrite match47, E47. unfold arm_expr_s. rewrite <- Lpre.
  destruct P as [|p0 Pr] eqn:EP.
  - rewrite N.eqb_refl. cbn [removelast].
    assert (Bs pre [] = pre ++ [47]) as -> by (unfold Bs; cbn [segs_text map concat]; apply app_nil_r).
    reflexivity.
  - pose proof (Bs_len_ge pre (removelast (p0 :: Pr))) as Lb.
    replace (nlen (Bs pre (removelast (p0 :: Pr))) =? nlen pre) with false by lia. reflexivity.
Qed.

End ParseRelativeS.

Section RelClassesS.
Variable dbg : bool.
Variable hp hpo : list N -> result host.
Variable hd : host -> list N.
Variable shp : bool -> list N -> option spec_host.
Variable shs : spec_host -> list N.

Theorem class_rel_abs_s input b sb : usv_list input -> related dbg shs b sb ->
  scheme_canon (su_scheme sb) = true -> in_class_rel_abs_s sb input = true ->
  exists su, spec_basic_url_parse shp input (Some sb) = BDone su /\ spec_base_ok su = true
    /\ agree_rel_strict dbg shs (parse_url dbg hp hpo hd None (Some b) input) (BDone su).
Proof.
  intros Hu R Hcan Hc. unfold in_class_rel_abs_s in Hc.
  apply andb_true_iff in Hc. destruct Hc as [Hb Hok].
  destruct (sp_base_ok_facts sb Hb) as (Hop & Hsp & Hnf & h & Eh).
  destruct (spec_clean input) as [|c t] eqn:Ecl; [discriminate Hok|].
  apply andb_true_iff in Hok. destruct Hok as [Hok Hspok]. apply andb_true_iff in Hok. destruct Hok as [Hc1 Ht].
  apply negb_true_iff in Ht.
  assert (match t with c2 :: _ => is_sl c2 = false | [] => True end) as Ht' by (destruct t; [exact I | exact Ht]).
  pose proof (is_sl_scheme_none c t Hc1) as Hs.
  exists (rel_path_result_s sb [] t).
  assert (spec_basic_url_parse shp input (Some sb) = BDone (rel_path_result_s sb [] t)) as HS.
  { apply spec_parse_of_runs. rewrite Ecl. exact (runs_rel_abs_s shp _ sb Hop Hsp Hnf c t eq_refl Hc1 Ht' Hs). }
  split; [exact HS|].
  (* the model *)
  pose proof (rel_wf _ _ _ _ R) as W. pose proof (path_start_le_len b W) as Lps.
  rewrite spec_clean_is_ntnl_trim in Ecl. set (l0 := input_new_trim_c0 input) in *.
  assert (usv_list l0) as Hul0 by (apply usv_trim; exact Hu).
  assert ((c =? 35) = false) as E35 by (unfold is_sl in Hc1; lia).
  destruct (parse_relative_abs_s dbg hp hpo hd b l0 c t Hul0 Ecl Hc1 Ht') as (r1 & Er1 & Hur1 & Epr).
  assert (parse_url dbg hp hpo hd None (Some b) input
          = arm_expr_s dbg b (Bs (nfirstn (path_start b) (ser b)) []) r1) as Epu.
  { rewrite (parse_url_relative_s dbg hp hpo hd None b input c t
               (related_not_cbb dbg shs b sb R Hop) (special_type_related dbg shs b sb R Hsp Hnf) Ecl Hs E35).
    exact Epr. }
  rewrite <- Er1 in Hspok.
  destruct (path_arm_related_s dbg shs b sb h [] r1 R Hop Hsp Hnf Eh Hcan Hur1 eq_refl eq_refl Hspok) as (u & HO & Ru & Hbo).
  rewrite Er1 in Ru, Hbo. split; [exact Hbo|]. rewrite Epu. exact (oob_agree dbg shs _ u _ HO Ru).
Qed.

Theorem class_rel_path_s input b sb : usv_list input -> related dbg shs b sb ->
  spec_base_ok sb = true -> in_class_rel_path_s sb input = true ->
  exists su, spec_basic_url_parse shp input (Some sb) = BDone su /\ spec_base_ok su = true
    /\ agree_rel_strict dbg shs (parse_url dbg hp hpo hd None (Some b) input) (BDone su).
Proof.
  intros Hu R Hbok Hc. unfold in_class_rel_path_s in Hc.
  apply andb_true_iff in Hbok. destruct Hbok as [Hcan HnsP].
  apply andb_true_iff in Hc. destruct Hc as [Hc Hok]. apply andb_true_iff in Hc. destruct Hc as [Hb Hsch].
  destruct (sp_base_ok_facts sb Hb) as (Hop & Hsp & Hnf & h & Eh).
  assert (spec_scheme (spec_clean input) = None) as Hs by (destruct (spec_scheme (spec_clean input)); [discriminate | reflexivity]).
  destruct (spec_clean input) as [|c t] eqn:Ecl; [discriminate Hok|].
  apply andb_true_iff in Hok. destruct Hok as [Hok Hspok]. apply andb_true_iff in Hok. destruct Hok as [Hok E35].
  apply andb_true_iff in Hok. destruct Hok as [Esl E63]. apply negb_true_iff in Esl, E63, E35.
  set (P := Whatwg.path_segments sb) in *.
  exists (rel_path_result_s sb (removelast P) (c :: t)).
  assert (spec_basic_url_parse shp input (Some sb) = BDone (rel_path_result_s sb (removelast P) (c :: t))) as HS.
  { apply spec_parse_of_runs. rewrite Ecl.
    exact (runs_rel_path_s shp (c :: t) sb Hop Hsp Hnf c t eq_refl Hs Esl E63 E35). }
  split; [exact HS|].
  (* the model *)
  pose proof (rel_wf _ _ _ _ R) as W. pose proof (path_start_le_len b W) as Lps.
  destruct (base_path_facts dbg shs b sb R Hop) as (Lpre & Ebq & HqhP). fold P in Ebq, HqhP.
  set (pre := nfirstn (path_start b) (ser b)) in *.
  rewrite spec_clean_is_ntnl_trim in Ecl. set (l0 := input_new_trim_c0 input) in *.
  assert (usv_list l0) as Hul0 by (apply usv_trim; exact Hu).
  assert (parse_url dbg hp hpo hd None (Some b) input = arm_expr_s dbg b (Bs pre (removelast P)) l0) as Epu.
  { rewrite (parse_url_relative_s dbg hp hpo hd None b input c t
               (related_not_cbb dbg shs b sb R Hop) (special_type_related dbg shs b sb R Hsp Hnf) Ecl Hs E35).
    exact (parse_relative_path_s dbg hp hpo hd shs b sb l0 c t R Hop Hsp Hnf HnsP Ecl Esl E63 E35). }
  rewrite <- Ecl in Hspok.
  destruct (path_arm_related_s dbg shs b sb h (removelast P) l0 R Hop Hsp Hnf Eh Hcan Hul0
              (no_slash_removelast P HnsP) (removelast_prefix_no_qh_s P HqhP) Hspok) as (u & HO & Ru & Hbo).
  fold pre in HO. rewrite Ecl in Ru, Hbo. split; [exact Hbo|]. rewrite Epu. exact (oob_agree dbg shs _ u _ HO Ru).
Qed.

End RelClassesS.

(* the scheme state with the scheme of a special base *)
Section SameSchemeSpec.
Variable shp : bool -> list N -> option spec_host.
Variable inp : list N.
Variable sb : spec_url.
Hypothesis Hsp : is_special_scheme (su_scheme sb) = true.
Hypothesis Hnf : list_eqb (su_scheme sb) str_file = false.

Notation RunsB := (Runs shp inp (Some sb)).
Notation u0 := (set_scheme empty_url (su_scheme sb)).

(* at the ':' : special relative or authority state *)
Lemma runs_scheme_colon_same pre R res : inp = pre ++ 58 :: R ->
  RunsB (at_pos StSpecialRelativeOrAuthority (pre ++ [58]) [] false false false u0) res ->
  RunsB (at_pos StScheme pre (su_scheme sb) false false false empty_url) res.
Proof.
  intros Hin HR.
  eapply (runs_step_next shp inp (Some sb) StScheme pre 58 R) with (st' := StSpecialRelativeOrAuthority) (buf' := []);
    [exact Hin | | exact HR].
  rewrite (step_unfold shp inp (Some sb) _ pre (58 :: R)) by exact Hin. cbn zeta. cbn [hd_error tl]. unfold st_scheme.
  assert (is_scheme_cp 58 = false) as E1 by reflexivity.
  cbn [cpred cis has_ov opt_is_some andb m_url m_buf at_pos]. rewrite E1.
  replace (58 =? 58) with true by reflexivity.
  unfold is_special. cbn [su_scheme set_scheme empty_url].
  rewrite Hnf, Hsp, list_eqb_refl. cbn [andb]. reflexivity.
Qed.

(* not "//": the relative state, at the same code point *)
Lemma runs_sroa_relative pre t res : inp = pre ++ t -> cis (hd_error t) 47 && starts_with_cp 47 (tl t) = false ->
  RunsB (at_pos StRelative pre [] false false false u0) res ->
  RunsB (at_pos StSpecialRelativeOrAuthority pre [] false false false u0) res.
Proof.
  intros Hin E HR.
  eapply (runs_step_back shp inp (Some sb) StSpecialRelativeOrAuthority pre t) with (st' := StRelative) (buf' := []) (u' := u0);
    [exact Hin | | exact HR].
  rewrite (step_unfold shp inp (Some sb) _ pre t) by exact Hin. cbn zeta. unfold st_special_relative_or_authority.
  rewrite E. reflexivity.
Qed.

(* "//": both skipped, special authority ignore slashes state *)
Lemma runs_sroa_authority pre T res : inp = pre ++ 47 :: 47 :: T ->
  RunsB (at_pos StAuthority ((pre ++ [47; 47]) ++ take_sl T) [] false false false u0) res ->
  RunsB (at_pos StSpecialRelativeOrAuthority pre [] false false false u0) res.
Proof.
  intros Hin HR.
  eapply R_next with (m' := mkM StSpecialAuthorityIgnoreSlashes (Z.of_nat (length pre) + 1)%Z [] false false false u0).
  - rewrite (step_unfold shp inp (Some sb) _ pre (47 :: 47 :: T)) by exact Hin. cbn zeta. cbn [hd_error tl].
    unfold st_special_relative_or_authority. cbn [cis starts_with_cp]. replace (47 =? 47) with true by reflexivity. reflexivity.
  - cbn [m_ptr]. rewrite (len_split shp _ _ _ Hin). cbn [length]. lia.
  - unfold inc_ptr, set_ptr. cbn [m_ptr m_state m_buf m_at m_br m_pw m_url].
    replace (Z.of_nat (length pre) + 1 + 1)%Z with (Z.of_nat (length (pre ++ [47; 47]))) by (rewrite app_length; cbn [length]; lia).
    change (mkM StSpecialAuthorityIgnoreSlashes (Z.of_nat (length (pre ++ [47; 47]))) [] false false false u0)
      with (at_pos StSpecialAuthorityIgnoreSlashes (pre ++ [47; 47]) [] false false false u0).
    apply (runs_ignore_slashes shp inp (Some sb) (take_sl T) (pre ++ [47; 47]) (drop_sl T) false false false u0 res).
    + rewrite take_drop_sl. rewrite Hin, <- app_assoc. reflexivity.
    + apply take_sl_all.
    + apply drop_sl_head.
    + exact HR.
Qed.

End SameSchemeSpec.

(* "sch:" + R with the scheme of a special base, R not starting with "//": the relative state behind the ':' *)
Lemma spec_same_scheme_relative shp input sb R res :
  is_special_scheme (su_scheme sb) = true -> list_eqb (su_scheme sb) str_file = false ->
  spec_scheme (spec_clean input) = Some (su_scheme sb, R) ->
  cis (hd_error R) 47 && starts_with_cp 47 (tl R) = false ->
  (forall pre, spec_clean input = pre ++ R ->
     Runs shp (spec_clean input) (Some sb) (at_pos StRelative pre [] false false false (set_scheme empty_url (su_scheme sb))) res) ->
  spec_basic_url_parse shp input (Some sb) = res.
Proof.
  intros Hsp Hnf Es E K. apply spec_parse_of_runs.
  destruct (runs_scheme shp (spec_clean input) (Some sb) (su_scheme sb) R res Es) as (pre & Hin & K0). apply K0.
  apply (runs_scheme_colon_same shp _ sb Hsp Hnf pre R _ Hin).
  assert (spec_clean input = (pre ++ [58]) ++ R) as Hin2 by (rewrite Hin, <- app_assoc; reflexivity).
  exact (runs_sroa_relative shp _ sb (pre ++ [58]) R _ Hin2 E (K _ Hin2)).
Qed.

Lemma spec_same_abs_s shp input sb c t :
  is_special_scheme (su_scheme sb) = true -> list_eqb (su_scheme sb) str_file = false ->
  spec_scheme (spec_clean input) = Some (su_scheme sb, c :: t) -> is_sl c = true ->
  match t with c2 :: _ => is_sl c2 = false | [] => True end ->
  spec_basic_url_parse shp input (Some sb) = BDone (rel_path_result_s sb [] t).
Proof.
  intros Hsp Hnf Es Hc1 Ht. apply (spec_same_scheme_relative shp input sb (c :: t) _ Hsp Hnf Es).
  - cbn [hd_error tl cis]. destruct t as [|c2 t2]; [apply andb_false_r|]. cbn [starts_with_cp].
    unfold is_sl in Ht. apply orb_false_iff in Ht. destruct Ht as [-> _]. apply andb_false_r.
  - intros pre Hin. exact (runs_rel_abs_g shp _ sb Hsp Hnf pre (set_scheme empty_url (su_scheme sb)) eq_refl c t Hin Hc1 Ht).
Qed.

Lemma spec_same_path_s shp input sb c t : has_opaque_path sb = false ->
  is_special_scheme (su_scheme sb) = true -> list_eqb (su_scheme sb) str_file = false ->
  spec_scheme (spec_clean input) = Some (su_scheme sb, c :: t) ->
  is_sl c = false -> (c =? 63) = false -> (c =? 35) = false ->
  spec_basic_url_parse shp input (Some sb) = BDone (rel_path_result_s sb (removelast (Whatwg.path_segments sb)) (c :: t)).
Proof.
  intros Hop Hsp Hnf Es Esl E63 E35. apply (spec_same_scheme_relative shp input sb (c :: t) _ Hsp Hnf Es).
  - cbn [hd_error tl cis]. unfold is_sl in Esl. apply orb_false_iff in Esl. destruct Esl as [-> _]. reflexivity.
  - intros pre Hin. exact (runs_rel_path_g shp _ sb Hop Hsp Hnf pre (set_scheme empty_url (su_scheme sb)) eq_refl c t Hin Esl E63 E35).
Qed.

(* the path of a related base has neither '?' nor '#' *)
Lemma related_path_no_qh dbg shs b sb : related dbg shs b sb -> has_opaque_path sb = false ->
  forallb C06_WFI.no_qh (flat_map (fun s => 47 :: s) (Whatwg.path_segments sb)) = true.
Proof. intros R Hop. exact (proj2 (proj2 (base_path_facts dbg shs b sb R Hop))). Qed.


(* classes "same scheme": "sch:/x" and "sch:x" against a base with the scheme sch *)
Lemma rel_path_result_s_scheme sb P t : su_scheme (rel_path_result_s sb P t) = su_scheme sb.
Proof.
  unfold rel_path_result_s.
  destruct (tail_url_same (rel_keep sb (fst (spath_s t P []))) (snd (spath_s t P []))) as [E _]. rewrite E. reflexivity.
Qed.

Definition in_class_same_abs_s (sb : spec_url) (input : list N) : bool :=
  sp_base_ok sb
  && match spec_scheme (spec_clean input) with
     | Some (sch, c :: t) => list_eqb sch (su_scheme sb) && is_sl c
                             && negb (match t with c2 :: _ => is_sl c2 | [] => false end) && spath_ok_s t [] []
     | _ => false
     end.

Definition in_class_same_path_s (sb : spec_url) (input : list N) : bool :=
  sp_base_ok sb
  && match spec_scheme (spec_clean input) with
     | Some (sch, c :: t) => list_eqb sch (su_scheme sb) && negb (is_sl c) && negb (c =? 63) && negb (c =? 35)
                             && spath_ok_s (c :: t) (removelast (Whatwg.path_segments sb)) []
     | _ => false
     end.

Section SameSchemeClasses.
Variable dbg : bool.
Variable hp hpo : list N -> result host.
Variable hd : host -> list N.
Variable shp : bool -> list N -> option spec_host.
Variable shs : spec_host -> list N.

(* parser.rs: fewer than two slashes after "sch:" and the scheme of the base: parse_relative on the rest *)
Lemma parse_url_same_scheme b sb input rem : related dbg shs b sb -> has_opaque_path sb = false ->
  is_special_scheme (su_scheme sb) = true -> list_eqb (su_scheme sb) str_file = false ->
  parse_scheme CUrlParser (input_new_trim_c0 input) = Some (su_scheme sb, rem) ->
  count_leading is_sl (ntnl rem) < 2 ->
  parse_url dbg hp hpo hd None (Some b) input
  = (' _ <~ to_u32 (nlen (su_scheme sb)) ;; parse_relative dbg hp hpo hd None CUrlParser STSpecialNotFile b rem).
Proof.
  intros R Hop Hsp Hnf Hps Hcnt. unfold parse_url. rewrite Hps. unfold parse_with_scheme.
  rewrite (special_type _ Hsp Hnf).
  destruct (inp_count_matching is_slash_or_bslash rem) as [sl rm] eqn:Ecm.
  pose proof (inp_count_matching_fst is_slash_or_bslash rem) as Hf. rewrite Ecm in Hf. cbn [fst] in Hf.
  change is_slash_or_bslash with is_sl in Hf.
  replace (sl <? 2) with true by (symmetry; apply N.ltb_lt; rewrite Hf; exact Hcnt).
  rewrite (rel_sch _ _ _ _ R), list_eqb_refl. cbn [andb].
  rewrite (related_not_cbb dbg shs b sb R Hop). cbn [negb passert].
  destruct (to_u32 (nlen (su_scheme sb))); cbn [pbind]; [|reflexivity | reflexivity].
  destruct dbg; reflexivity.
Qed.

Lemma same_scheme_finish (m : pres url) (sb : spec_url) u su : related dbg shs u su -> su_scheme su = su_scheme sb ->
  oob (U32_MAX_P < nlen (ser u)) m u ->
  agree_rel_strict dbg shs (' _ <~ to_u32 (nlen (su_scheme sb)) ;; m) (BDone su).
Proof.
  intros Ru Esch HO.
  apply (oob_agree dbg shs _ u su); [|exact Ru].
  eapply oob_bind; [|exact HO]. apply oob_u32. intros Hlt.
  destruct (related_scheme_colon dbg shs u su Ru) as (_ & Ese & _).
  destruct (wf_scheme_facts u (rel_wf _ _ _ _ Ru)) as (_ & _ & Hl). rewrite Ese, Esch in Hl. lia.
Qed.

Theorem class_same_abs_s input b sb : usv_list input -> related dbg shs b sb ->
  scheme_canon (su_scheme sb) = true -> in_class_same_abs_s sb input = true ->
  exists su, spec_basic_url_parse shp input (Some sb) = BDone su /\ spec_base_ok su = true
    /\ agree_rel_strict dbg shs (parse_url dbg hp hpo hd None (Some b) input) (BDone su).
Proof.
  intros Hu R Hcan Hc. unfold in_class_same_abs_s in Hc.
  apply andb_true_iff in Hc. destruct Hc as [Hb Hok].
  destruct (sp_base_ok_facts sb Hb) as (Hop & Hsp & Hnf & h & Eh).
  destruct (spec_scheme (spec_clean input)) as [[sch R0]|] eqn:Es; [|discriminate Hok].
  destruct R0 as [|c t]; [discriminate Hok|].
  apply andb_true_iff in Hok. destruct Hok as [Hok Hspok]. apply andb_true_iff in Hok. destruct Hok as [Hok Ht].
  apply andb_true_iff in Hok. destruct Hok as [Esch Hc1]. apply list_eqb_spec in Esch. subst sch.
  apply negb_true_iff in Ht.
  assert (match t with c2 :: _ => is_sl c2 = false | [] => True end) as Ht' by (destruct t; [exact I | exact Ht]).
  exists (rel_path_result_s sb [] t).
  split; [exact (spec_same_abs_s shp input sb c t Hsp Hnf Es Hc1 Ht')|].
  destruct (spec_scheme_input input _ _ Hu Es) as (rem & Hps & Hrem & Hur).
  rewrite (parse_url_same_scheme b sb input rem R Hop Hsp Hnf Hps).
  2:{ rewrite Hrem. cbn [count_leading]. rewrite Hc1. destruct t as [|c2 t2]; [cbn [count_leading]; lia|].
      cbn [count_leading]. rewrite Ht. lia. }
  destruct (parse_relative_abs_s dbg hp hpo hd b rem c t Hur Hrem Hc1 Ht') as (r1 & Er1 & Hur1 & ->).
  rewrite <- Er1 in Hspok.
  destruct (path_arm_related_s dbg shs b sb h [] r1 R Hop Hsp Hnf Eh Hcan Hur1 eq_refl eq_refl Hspok) as (u & HO & Ru & Hbo).
  rewrite Er1 in Ru, Hbo. split; [exact Hbo|].
  exact (same_scheme_finish _ sb u _ Ru (rel_path_result_s_scheme sb [] t) HO).
Qed.

Theorem class_same_path_s input b sb : usv_list input -> related dbg shs b sb ->
  spec_base_ok sb = true -> in_class_same_path_s sb input = true ->
  exists su, spec_basic_url_parse shp input (Some sb) = BDone su /\ spec_base_ok su = true
    /\ agree_rel_strict dbg shs (parse_url dbg hp hpo hd None (Some b) input) (BDone su).
Proof.
  intros Hu R Hbok Hc. unfold in_class_same_path_s in Hc.
  apply andb_true_iff in Hbok. destruct Hbok as [Hcan HnsP].
  apply andb_true_iff in Hc. destruct Hc as [Hb Hok].
  destruct (sp_base_ok_facts sb Hb) as (Hop & Hsp & Hnf & h & Eh).
  destruct (spec_scheme (spec_clean input)) as [[sch R0]|] eqn:Es; [|discriminate Hok].
  destruct R0 as [|c t]; [discriminate Hok|].
  apply andb_true_iff in Hok. destruct Hok as [Hok Hspok]. apply andb_true_iff in Hok. destruct Hok as [Hok E35].
  apply andb_true_iff in Hok. destruct Hok as [Hok E63]. apply andb_true_iff in Hok. destruct Hok as [Esch Esl].
  apply list_eqb_spec in Esch. subst sch. apply negb_true_iff in Esl, E63, E35.
  set (P := Whatwg.path_segments sb) in *.
  exists (rel_path_result_s sb (removelast P) (c :: t)).
  split; [exact (spec_same_path_s shp input sb c t Hop Hsp Hnf Es Esl E63 E35)|].
  destruct (spec_scheme_input input _ _ Hu Es) as (rem & Hps & Hrem & Hur).
  rewrite (parse_url_same_scheme b sb input rem R Hop Hsp Hnf Hps).
  2:{ rewrite Hrem. cbn [count_leading]. rewrite Esl. lia. }
  rewrite (parse_relative_path_s dbg hp hpo hd shs b sb rem c t R Hop Hsp Hnf HnsP Hrem Esl E63 E35). fold P.
  rewrite <- Hrem in Hspok.
  destruct (path_arm_related_s dbg shs b sb h (removelast P) rem R Hop Hsp Hnf Eh Hcan Hur
              (no_slash_removelast P HnsP) (removelast_prefix_no_qh_s P (related_path_no_qh dbg shs b sb R Hop)) Hspok)
    as (u & HO & Ru & Hbo).
  rewrite Hrem in Ru, Hbo. split; [exact Hbo|].
  exact (same_scheme_finish _ sb u _ Ru (rel_path_result_s_scheme sb _ _) HO).
Qed.

End SameSchemeClasses.

(* "sch://..." with the scheme of the base: the base is ignored *)
(* two leading '/' or '\' after "sch:" - the Standard reaches the special authority ignore slashes state
   (directly on "//", through the relative and relative slash states otherwise), parser.rs counts two slashes
   and calls after_double_slash: the same outcome as without base *)
Definition two_sl (R : list N) : bool := match R with c1 :: c2 :: _ => is_sl c1 && is_sl c2 | _ => false end.
Definition same_two_sl (sb : spec_url) (sch R : list N) : bool :=
  list_eqb sch (su_scheme sb) && is_special_scheme sch && negb (list_eqb sch str_file) && two_sl R.

Theorem spec_same_two_sl shp sb input sch R :
  spec_scheme (spec_clean input) = Some (sch, R) -> same_two_sl sb sch R = true ->
  outcome_eq (spec_basic_url_parse shp input (Some sb)) (spec_basic_url_parse shp input None).
Proof.
  intros Es Hc. unfold same_two_sl in Hc.
  apply andb_true_iff in Hc. destruct Hc as [Hc H2sl]. apply andb_true_iff in Hc. destruct Hc as [Hc Hnf].
  apply andb_true_iff in Hc. destruct Hc as [Esch Hsp]. apply list_eqb_spec in Esch. subst sch. apply negb_true_iff in Hnf.
  destruct R as [|c1 [|c2 T]]; try discriminate H2sl. cbn [two_sl] in H2sl.
  apply andb_true_iff in H2sl. destruct H2sl as [H1 H2].
  assert (drop_sl (c1 :: c2 :: T) = drop_sl T) as Ed by (unfold drop_sl; cbn [drop_leading]; rewrite H1, H2; reflexivity).
  apply (outcome_is_eq _ _ (sauth_s shp (su_scheme sb) (drop_sl T))).
  - set (inp := spec_clean input) in *.
    destruct (runs_scheme shp inp (Some sb) (su_scheme sb) (c1 :: c2 :: T) BOutOfFuel Es) as (pre & Hin & _).
    assert (inp = (pre ++ [58]) ++ c1 :: c2 :: T) as Hin2 by (rewrite Hin, <- app_assoc; reflexivity).
    assert (forall res, Runs shp inp (Some sb) (at_pos StSpecialRelativeOrAuthority (pre ++ [58]) [] false false false
                                                (set_scheme empty_url (su_scheme sb))) res ->
                        spec_basic_url_parse shp input (Some sb) = res) as Hrun.
    { intros res HR. apply spec_parse_of_runs. fold inp.
      destruct (runs_scheme shp inp (Some sb) (su_scheme sb) (c1 :: c2 :: T) res Es) as (pre2 & Hin' & K). apply K.
      assert (pre2 = pre) as -> by (rewrite Hin in Hin'; apply app_inv_tail in Hin'; symmetry; exact Hin').
      exact (runs_scheme_colon_same shp inp sb Hsp Hnf pre (c1 :: c2 :: T) res Hin HR). }
    assert (out_is shp inp (Some sb) (at_pos StSpecialRelativeOrAuthority (pre ++ [58]) [] false false false
                                             (set_scheme empty_url (su_scheme sb)))
                   (sauth_s shp (su_scheme sb) (drop_sl T))) as HO.
    { destruct ((c1 =? 47) && (c2 =? 47)) eqn:E47.
      - apply andb_true_iff in E47. destruct E47 as [E1 E2]. apply N.eqb_eq in E1, E2. subst c1 c2.
        assert (inp = (((pre ++ [58]) ++ [47; 47]) ++ take_sl T) ++ drop_sl T) as Hin3.
        { rewrite <- !app_assoc. cbn [app]. rewrite take_drop_sl. rewrite Hin. reflexivity. }
        pose proof (runs_authority_s shp inp (Some sb) _ (drop_sl T) (su_scheme sb) Hin3 Hsp Hnf) as RA.
        destruct (sauth_s shp (su_scheme sb) (drop_sl T)) as [su|]; cbn [out_is] in *.
        + exact (runs_sroa_authority shp inp sb (pre ++ [58]) T _ Hin2 RA).
        + destruct RA as [uf RA]. exists uf. exact (runs_sroa_authority shp inp sb (pre ++ [58]) T _ Hin2 RA).
      - pose proof (runs_rel_authority_g shp inp sb Hsp Hnf (pre ++ [58]) (set_scheme empty_url (su_scheme sb)) eq_refl
                      c1 c2 T Hin2 H1 H2) as RA.
        assert (cis (hd_error (c1 :: c2 :: T)) 47 && starts_with_cp 47 (tl (c1 :: c2 :: T)) = false) as E by exact E47.
        destruct (sauth_s shp (su_scheme sb) (drop_sl T)) as [su|]; cbn [out_is] in *.
        + exact (runs_sroa_relative shp inp sb (pre ++ [58]) _ _ Hin2 E RA).
        + destruct RA as [uf RA]. exists uf. exact (runs_sroa_relative shp inp sb (pre ++ [58]) _ _ Hin2 E RA). }
    destruct (sauth_s shp (su_scheme sb) (drop_sl T)) as [su|]; cbn [out_is outcome_is] in *.
    + apply Hrun. exact HO.
    + destruct HO as [uf HO]. exists uf. apply Hrun. exact HO.
  - pose proof (spec_special shp input (su_scheme sb) (c1 :: c2 :: T) Es Hsp Hnf) as K. rewrite Ed in K.
    destruct (sauth_s shp (su_scheme sb) (drop_sl T)); exact K.
Qed.

Theorem model_same_two_sl dbg hp hpo hd ovr b input sch R :
  spec_scheme (spec_clean input) = Some (sch, R) -> is_special_scheme sch = true -> list_eqb sch str_file = false ->
  two_sl R = true ->
  parse_url dbg hp hpo hd ovr (Some b) input = parse_url dbg hp hpo hd ovr None input.
Proof.
  intros Es Hsp Hnf H2sl. rewrite spec_clean_is_ntnl_trim in Es. destruct (spec_scheme_model _ _ _ Es) as (rem & Hps & Hrem).
  unfold parse_url. rewrite Hps. unfold parse_with_scheme. rewrite (special_type _ Hsp Hnf).
  destruct (inp_count_matching is_slash_or_bslash rem) as [sl rm] eqn:Ecm.
  pose proof (inp_count_matching_fst is_slash_or_bslash rem) as Hf. rewrite Ecm in Hf. cbn [fst] in Hf.
  change is_slash_or_bslash with is_sl in Hf. rewrite Hrem in Hf.
  destruct R as [|c1 [|c2 T]]; try discriminate H2sl. cbn [two_sl] in H2sl.
  apply andb_true_iff in H2sl. destruct H2sl as [H1 H2]. cbn [count_leading] in Hf. rewrite H1, H2 in Hf.
  replace (sl <? 2) with false by lia. reflexivity.
Qed.

(* the Standard's side of the two same-scheme path classes alone *)
Lemma same_abs_s_spec shp input sb : in_class_same_abs_s sb input = true ->
  exists t, spec_basic_url_parse shp input (Some sb) = BDone (rel_path_result_s sb [] t).
Proof.
  intros Hc. unfold in_class_same_abs_s in Hc.
  apply andb_true_iff in Hc. destruct Hc as [Hb Hok].
  destruct (sp_base_ok_facts sb Hb) as (Hop & Hsp & Hnf & h & Eh).
  destruct (spec_scheme (spec_clean input)) as [[sch R0]|] eqn:Es; [|discriminate Hok].
  destruct R0 as [|c t]; [discriminate Hok|].
  apply andb_true_iff in Hok. destruct Hok as [Hok Hspok]. apply andb_true_iff in Hok. destruct Hok as [Hok Ht].
  apply andb_true_iff in Hok. destruct Hok as [Esch Hc1]. apply list_eqb_spec in Esch. subst sch.
  apply negb_true_iff in Ht.
  assert (match t with c2 :: _ => is_sl c2 = false | [] => True end) as Ht' by (destruct t; [exact I | exact Ht]).
  exists t. exact (spec_same_abs_s shp input sb c t Hsp Hnf Es Hc1 Ht').
Qed.

Lemma same_path_s_spec shp input sb : in_class_same_path_s sb input = true ->
  exists t, spec_basic_url_parse shp input (Some sb)
            = BDone (rel_path_result_s sb (removelast (Whatwg.path_segments sb)) t).
Proof.
  intros Hc. unfold in_class_same_path_s in Hc.
  apply andb_true_iff in Hc. destruct Hc as [Hb Hok].
  destruct (sp_base_ok_facts sb Hb) as (Hop & Hsp & Hnf & h & Eh).
  destruct (spec_scheme (spec_clean input)) as [[sch R0]|] eqn:Es; [|discriminate Hok].
  destruct R0 as [|c t]; [discriminate Hok|].
  apply andb_true_iff in Hok. destruct Hok as [Hok Hspok]. apply andb_true_iff in Hok. destruct Hok as [Hok E35].
  apply andb_true_iff in Hok. destruct Hok as [Hok E63]. apply andb_true_iff in Hok. destruct Hok as [Esch Esl].
  apply list_eqb_spec in Esch. subst sch. apply negb_true_iff in Esl, E63, E35.
  exists (c :: t). exact (spec_same_path_s shp input sb c t Hop Hsp Hnf Es Esl E63 E35).
Qed.
