(* Proofs/C01_EqFileTwo.v - first file-BASE arm of the C01 equivalence: "file:" followed by two (or more) '/' '\'
   against ANY base, a file URL included.  Neither side consults the base there: the Standard goes file state ->
   file slash state -> file host state (the base is read only in the other arms of the file and file slash
   states), parser.rs takes the file-host arm of parse_file before it looks at base_file_url.  So the theorem of
   the file class (Proofs/C01_EqFile.v) holds for these inputs against every base pair with the same scheme on the
   two sides (base_sch_rel; part of `related`).  known_c01_v2 does not use this (against a file base these
   inputs are in its class 1); known_c01_v3 and known_c01 do (Proofs/C01_EqFileCover2.v, statement_all5). *)
From Coq Require Import ZifyBool ZifyN.
From RU Require Import Base.Prelude Model.HostT Model.UrlRecord Model.Parser Model.Setters Model.Host
  Model.KnownC01 Spec.Whatwg Spec.WhatwgHostParse Proofs.C08_Input Proofs.C09_Host Proofs.C01_EqRun
  Proofs.C01_EqApi Proofs.C01_EqClasses2 Proofs.C01_EqRelArms Proofs.C01_EqSpSpec Proofs.C01_EqSpPath
  Proofs.C01_EqAsm Proofs.C01_EqShape Proofs.C01_EqCover Proofs.C01_EqFileSpec Proofs.C01_EqFile
  Proofs.C01_EqFileHost Proofs.C01_EqFileAsm.

(* specification side: two leading slashes, ANY base *)
Section FileRuns2.
Variable hp : bool -> list N -> option spec_host.
Variable input : list N.
Variable base : option spec_url.
Notation RunsN := (Runs hp input base).
Notation stepN := (step hp input base None).
Notation outN := (out_is hp input base).

Theorem runs_file_two c1 c2 T : forall pre a b pw u,
  input = pre ++ c1 :: c2 :: T -> is_sl c1 = true -> is_sl c2 = true -> su_path u = SPList [] ->
  outN (at_pos StFile pre [] a b pw u) (sfile_host_g hp (fu u) [] T).
Proof.
  intros pre a b pw u Hin Esl1 Esl2 HP. pose proof (fu_path u HP) as HP'. pose proof (fu_scheme u) as Hf'.
  assert (stepN (at_pos StFile pre [] a b pw u) = SCont (mkM StFileSlash (Z.of_nat (length pre)) [] a b pw (fu u))) as E1.
  { rewrite (step_unfold _ _ _ _ _ _ _ _ _ _ _ Hin). cbn zeta. cbn [hd_error]. unfold st_file.
    cbn [cis]. fold (is_sl c1). rewrite Esl1. reflexivity. }
  assert (input = (pre ++ [c1]) ++ c2 :: T) as Hin1 by (exact (snoc_split _ _ _ _ Hin)).
  eapply out_next; [exact Hin | exact E1 |].
  eapply out_next with (st' := StFileHost) (buf' := []) (u' := fu u); [exact Hin1 | |].
  - rewrite (step_unfold _ _ _ _ _ _ _ _ _ _ _ Hin1). cbn zeta. cbn [hd_error]. unfold st_file_slash.
    cbn [cis]. fold (is_sl c2). rewrite Esl2. reflexivity.
  - exact (runs_file_host hp input base T ((pre ++ [c1]) ++ [c2]) [] a b pw (fu u) (snoc_split _ _ _ _ Hin1) HP' Hf').
Qed.
End FileRuns2.

(* "file:" + two slashes / backslashes: the Standard's outcome for ANY base (a file base included) *)
Theorem spec_file_two shp base input c1 c2 T :
  spec_scheme (spec_clean input) = Some (str_file, c1 :: c2 :: T) -> is_sl c1 = true -> is_sl c2 = true ->
  match sfile shp u_file0 (c1 :: c2 :: T) with
  | Some su => spec_basic_url_parse shp input base = BDone su
  | None => exists uf, spec_basic_url_parse shp input base = BFailure uf
  end.
Proof.
  intros Hs E1 E2. set (inp := spec_clean input) in *. set (R := c1 :: c2 :: T) in *.
  destruct (runs_scheme shp inp base str_file R BOutOfFuel Hs) as (pre & Hin & _).
  assert (inp = (pre ++ [58]) ++ R) as Hin1 by (rewrite Hin, <- app_assoc; reflexivity).
  pose proof (runs_file_two shp inp base c1 c2 T (pre ++ [58]) false false false u_file0 Hin1 E1 E2 eq_refl) as RF.
  assert (forall res, Runs shp inp base (at_pos StFile (pre ++ [58]) [] false false false u_file0) res ->
                      spec_basic_url_parse shp input base = res) as Hrun.
  { intros res HR. apply spec_parse_of_runs. fold inp.
    destruct (runs_scheme shp inp base str_file R res Hs) as (pre2 & Hin' & K). apply K. clear K.
    assert (pre2 = pre) as -> by (rewrite Hin in Hin'; apply app_inv_tail in Hin'; symmetry; exact Hin').
    exact (runs_scheme_colon_file shp inp base pre R res Hin HR). }
  unfold R. cbn [sfile]. rewrite E1, E2.
  destruct (sfile_host_g shp (fu u_file0) [] T) as [su|]; cbn [out_is] in RF.
  - apply Hrun. exact RF.
  - destruct RF as [uf K]. exists uf. apply Hrun. exact K.
Qed.

(* model side: parse_file does not consult the base behind two slashes *)
Lemma parse_file_two dbg hp hd bf l c1 c2 T : ntnl l = c1 :: c2 :: T -> is_sl c1 = true -> is_sl c2 = true ->
  parse_file dbg hp hd None CUrlParser STFile bf l = parse_file dbg hp hd None CUrlParser STFile None l.
Proof.
  intros ER E1 E2. unfold parse_file, inp_split_first.
  destruct (inp_next_some l c1 (c2 :: T) ER) as (l1 & En1 & Hl1 & _). rewrite En1. cbv iota beta.
  rewrite is_sl_model, E1.
  destruct (inp_next_some l1 c2 T Hl1) as (l2 & En2 & _ & _). rewrite En2. cbv iota beta.
  change (is_slash_or_bslash c2) with (is_sl c2). rewrite E2. reflexivity.
Qed.

(* the class: "file:" + two slashes / backslashes, ANY base *)
Definition two_sl_file (input : list N) : bool :=
  match spec_scheme (spec_clean input) with
  | Some (sch, c1 :: c2 :: _) => list_eqb sch str_file && is_sl c1 && is_sl c2
  | _ => false
  end.

Section Class2.
Variable dbg : bool.
Variable hp hpo : list N -> result host.
Variable hd : host -> list N.
Variable shp : bool -> list N -> option spec_host.
Variable shs : spec_host -> list N.

Theorem class_file_two base sbase input : usv_list input -> in_class_file input = true -> two_sl_file input = true ->
  base_sch_rel base sbase ->
  host_agree_file hp hd shp shs (class_host_text_f input) ->
  agree_rel_strict dbg shs (parse_url dbg hp hpo hd None base input) (spec_basic_url_parse shp input sbase).
Proof.
  intros Hu Hc H2 Hb HA. unfold in_class_file, class_host_text_f, two_sl_file in *.
  destruct (spec_scheme (spec_clean input)) as [[sch R]|] eqn:Es; [|discriminate].
  apply andb_true_iff in Hc. destruct Hc as [Hsch Hok]. apply list_eqb_spec in Hsch. subst sch.
  destruct R as [|c1 [|c2 T]]; try discriminate H2.
  apply andb_true_iff in H2. destruct H2 as [H2 E2]. apply andb_true_iff in H2. destruct H2 as [_ E1].
  pose proof (spec_file_two shp sbase input c1 c2 T Es E1 E2) as HS.
  destruct (parse_url_file_scheme dbg hp hpo hd base input _ Hu Es) as (rem & Hur & Hrem & ->).
  rewrite <- Hrem in Hok, HA, HS.
  pose proof (model_file dbg hp hpo hd shp shs rem Hur Hok HA) as HM.
  rewrite (parse_file_two dbg hp hd _ rem c1 c2 T Hrem E1 E2).
  destruct (sfile shp u_file0 (ntnl rem)) as [su|].
  - rewrite HS. cbn [agree_rel_strict]. destruct HM as (u & HO & Rl & Hle).
    pose proof (related_href dbg shs u su Rl) as Eh. rewrite <- Eh.
    destruct HO as [[E B]|E]; [left; split; assumption | right; exists u; split; assumption].
  - destruct HS as [uf ->]. cbn [agree_rel_strict]. exact HM.
Qed.

Theorem file_result_ok_two input sbase su : in_class_file input = true -> two_sl_file input = true ->
  spec_basic_url_parse shp input sbase = BDone su -> spec_base_ok su = true /\ base_shape_ok su = true.
Proof.
  intros Hc H2 HS. unfold in_class_file, two_sl_file in *.
  destruct (spec_scheme (spec_clean input)) as [[sch R]|] eqn:Es; [|discriminate].
  apply andb_true_iff in Hc. destruct Hc as [Hsch _]. apply list_eqb_spec in Hsch. subst sch.
  destruct R as [|c1 [|c2 T]]; try discriminate H2.
  apply andb_true_iff in H2. destruct H2 as [H2 E2]. apply andb_true_iff in H2. destruct H2 as [_ E1].
  pose proof (spec_file_two shp sbase input c1 c2 T Es E1 E2) as K.
  destruct (sfile shp u_file0 (c1 :: c2 :: T)) as [su'|] eqn:E.
  - rewrite K in HS. inversion HS; subst su'. exact (sfile_result_ok shp _ su E).
  - destruct K as [uf K]. rewrite K in HS. discriminate HS.
Qed.

Theorem class_file_two_good base sbase input : usv_list input -> in_class_file input = true -> two_sl_file input = true ->
  base_sch_rel base sbase ->
  host_agree_file hp hd shp shs (class_host_text_f input) ->
  agree_good dbg shs (parse_url dbg hp hpo hd None base input) (spec_basic_url_parse shp input sbase)
  /\ (forall su u, spec_basic_url_parse shp input sbase = BDone su -> parse_url dbg hp hpo hd None base input = POk u ->
        full_base dbg shs u su).
Proof.
  intros Hu Hc H2 Hb HA.
  assert (agree_good dbg shs (parse_url dbg hp hpo hd None base input) (spec_basic_url_parse shp input sbase)) as G.
  { apply agree_good_intro.
    - exact (class_file_two base sbase input Hu Hc H2 Hb HA).
    - intros su HS. exact (proj1 (file_result_ok_two input sbase su Hc H2 HS)). }
  split; [exact G|]. intros su u HS HM. rewrite HS in G.
  split; [exact (agree_good_chain dbg shs _ su u G HM) | exact (proj2 (file_result_ok_two input sbase su Hc H2 HS))].
Qed.

End Class2.

Theorem class_file_two_model dbg idna : IdnaOK idna -> forall input base sbase,
  usv_list input -> full_rel dbg spec_host_serializer base sbase ->
  in_class_file input = true -> two_sl_file input = true ->
  agree_good dbg spec_host_serializer
    (parse_url dbg (host_parse idna) host_parse_opaque host_display None base input)
    (spec_basic_url_parse (spec_host_parser idna) input sbase)
  /\ (forall su u, spec_basic_url_parse (spec_host_parser idna) input sbase = BDone su ->
        parse_url dbg (host_parse idna) host_parse_opaque host_display None base input = POk u ->
        full_base dbg spec_host_serializer u su).
Proof.
  intros HI input base sbase Hu Hb Hc H2.
  apply class_file_two_good; [exact Hu | exact Hc | exact H2 | exact (full_rel_sch _ _ _ _ Hb)|].
  apply host_agree_file_real; [exact (idna_out idna HI) | apply class_host_text_f_usv; exact Hu].
Qed.

(* non-vacuity: against the parse result of file://h/tmp/x, file://h2.x/a/../b?q and fIle:\\/y are in the class;
   both sides give file://h2.x/b?q and file:///y (the base is not consulted) *)
Example class_file_two_nonvacuous :
  let idna := id_idna in
  let P base i := parse_url true (host_parse idna) host_parse_opaque host_display None base i in
  let S sbase i := spec_basic_url_parse (spec_host_parser idna) i sbase in
  let i1 := [102;105;108;101;58;47;47;104;50;46;120;47;97;47;46;46;47;98;63;113] in
  let i2 := [102;73;108;101;58;92;92;47;121] in
  match P None file_base_text, S None file_base_text with
  | POk b, BDone sb =>
      su_scheme sb = str_file
      /\ in_class_file i1 = true /\ two_sl_file i1 = true /\ in_class_file i2 = true /\ two_sl_file i2 = true
      /\ known_c01_v2 (Some b) i1 = 1 /\ known_c01_v2 (Some b) i2 = 1
      /\ match P (Some b) i1, S (Some sb) i1 with
         | POk u, BDone su => q_href u = [102;105;108;101;58;47;47;104;50;46;120;47;98;63;113]
                              /\ api_of_model true u = Some (spec_api_list spec_host_serializer su)
         | _, _ => False end
      /\ match P (Some b) i2, S (Some sb) i2 with
         | POk u, BDone su => q_href u = [102;105;108;101;58;47;47;47;121]
                              /\ api_of_model true u = Some (spec_api_list spec_host_serializer su)
         | _, _ => False end
  | _, _ => False
  end.
Proof. vm_compute. repeat split. Qed.
