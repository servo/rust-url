(* Proofs/C16_RT.v - the parser half of the origin round trip: what each state of the parser model does on a text
   scheme "://" host-text [":" port]  (scheme, "//", userinfo, host scan, port, the "/" appended as the path, the
   accessors of the record that results); Proofs/C16_RTU.v puts them together.  plainc / plain_text: the texts of
   domains and IPv4 addresses (printable ASCII without : / \ ? # @ [ ]).
   nfirstn_app_exact, nskipn_app_exact, ends_with_not, opt_eqb_sym and to_u32_ok are general facts about ListN and
   the parser model (slicing a ++ b at nlen a; ends_with_byte; opt_eqb; to_u32 below U32_MAX_P), not about origins:
   files of other property families (C02_*, C06_*, C04_Origin, Inst_Host) import this file for them. *)
From RU Require Import Base.Prelude Base.Utf8 Model.HostT Model.UrlRecord Model.Parser Model.Origin
  Proofs.C16_Origin.
From RU Require Import Proofs.Decimal.

Definition plainc (c : N) : bool :=
  (32 <? c) && (c <? 128) && negb (memb c [58; 47; 92; 63; 35; 64; 91; 93]).

(* a string of ASCII bytes is its own chars() *)
Lemma utf8_lossy_ascii l : Forall (fun c => c < 128) l -> utf8_lossy l = l.
Proof.
  unfold utf8_lossy. induction 1 as [|b r Hb Hr IH]; [reflexivity|].
  cbn [utf8_scan]. apply N.ltb_lt in Hb. rewrite Hb. cbn [map]. now rewrite IH.
Qed.

Lemma drop_while_none f l : Forall (fun c => f c = false) l -> drop_while f l = l.
Proof. destruct 1 as [|c r Hc Hr]; [reflexivity|]. cbn [drop_while]. now rewrite Hc. Qed.

Lemma trim_id f l : Forall (fun c => f c = false) l -> trim_matches f l = l.
Proof.
  intros H. unfold trim_matches. rewrite (drop_while_none f l H).
  rewrite drop_while_none; [apply rev_involutive|].
  apply Forall_rev. exact H.
Qed.

Lemma parse_scheme_five s rest : In s five_schemes ->
  parse_scheme CUrlParser (s ++ 58 :: rest) = Some (s, rest).
Proof.
  intros H. cbn [five_schemes In] in H.
  destruct H as [<-|[<-|[<-|[<-|[<-|[]]]]]]; reflexivity.
Qed.

(* the count of leading slashes: stops at a code point that is no slash, and skips "//" *)
Lemma count_matching_stop c r :
  is_tnl c = false -> is_slash_or_bslash c = false ->
  inp_count_matching is_slash_or_bslash (c :: r) = (0, c :: r).
Proof. intros H1 H2. cbn [inp_count_matching]. now rewrite H1, H2. Qed.

Lemma count_matching_ss c r :
  is_tnl c = false -> is_slash_or_bslash c = false ->
  snd (inp_count_matching is_slash_or_bslash (47 :: 47 :: c :: r)) = c :: r.
Proof.
  intros H1 H2.
  change (inp_count_matching is_slash_or_bslash (47 :: 47 :: c :: r))
    with (let (n, rem) := (let (n, rem) := inp_count_matching is_slash_or_bslash (c :: r) in (n + 1, rem)) in (n + 1, rem)).
  rewrite (count_matching_stop c r H1 H2). reflexivity.
Qed.

(* no '@' in the text: no userinfo is found *)
Lemma scan_last_at_none sp l n : Forall (fun c => c <> 64) l -> scan_last_at sp l n None = None.
Proof.
  intros H. revert n. induction H as [|c r Hc Hr IH]; intros n; [reflexivity|].
  cbn [scan_last_at]. destruct (is_tnl c); [apply IH|].
  destruct (c =? 64) eqn:E; [apply N.eqb_eq in E; contradiction|].
  destruct ((c =? 47) || (c =? 63) || (c =? 35) || (c =? 92) && sp); [reflexivity|apply IH].
Qed.

Lemma plainc_facts c : plainc c = true ->
  is_tnl c = false /\ 32 < c /\ c < 128 /\ c <> 58 /\ c <> 47 /\ c <> 92 /\ c <> 63 /\ c <> 35 /\ c <> 64
  /\ c <> 91 /\ c <> 93.
Proof.
  unfold plainc, is_tnl. cbn [memb]. intros H. lia.
Qed.

(* the host state keeps a code point that is no tab or newline and none of \ / ? # [ ], and outside
   brackets no ':' either *)
Lemma host_scan_keeps inside t : forall acc rest,
  Forall (fun c => is_tnl c = false /\ (inside = false -> c <> 58)
                   /\ c <> 92 /\ c <> 47 /\ c <> 63 /\ c <> 35 /\ c <> 91 /\ c <> 93) t ->
  host_scan true inside acc (t ++ rest) = host_scan true inside (rev t ++ acc) rest.
Proof.
  intros acc rest H. revert acc. induction H as [|c t (Ht & H58 & H92 & H47 & H63 & H35 & H91 & H93) Hr IH]; intros acc; [reflexivity|].
  cbn [app host_scan rev]. rewrite Ht.
  replace ((c =? 58) && negb inside) with false by (symmetry; destruct inside; [apply andb_false_r|apply andb_false_intro1, N.eqb_neq, H58; reflexivity]).
  replace (c =? 92) with false by lia. replace (c =? 47) with false by lia. replace (c =? 63) with false by lia.
  replace (c =? 35) with false by lia. replace (c =? 91) with false by lia. replace (c =? 93) with false by lia.
  cbn [andb orb]. rewrite IH, <- app_assoc. reflexivity.
Qed.

(* ... so a text of such code points is read to its end, where the input ends or a ':' follows *)
Lemma host_scan_through t acc sfx :
  Forall (fun c => is_tnl c = false /\ c <> 58 /\ c <> 92 /\ c <> 47 /\ c <> 63 /\ c <> 35 /\ c <> 91 /\ c <> 93) t ->
  (sfx = [] \/ exists r, sfx = 58 :: r) ->
  host_scan true false acc (t ++ sfx) = (rev acc ++ t, sfx).
Proof.
  intros Ht Hs. rewrite (host_scan_keeps false) by (eapply Forall_impl; [|exact Ht]; cbv beta; tauto).
  rewrite <- (rev_involutive t) at 2. rewrite <- rev_app_distr. destruct Hs as [->|[r ->]]; reflexivity.
Qed.

(* general facts about ListN and the parser model, see the head comment *)
From RU Require Import Proofs.ListN.

Lemma nfirstn_app_exact a b : nfirstn (nlen a) (a ++ b) = a.
Proof.
  unfold nfirstn, nlen. rewrite Nat2N.id. rewrite firstn_app, Nat.sub_diag, firstn_all. cbn [firstn]. apply app_nil_r.
Qed.
Lemma nskipn_app_exact a b : nskipn (nlen a) (a ++ b) = b.
Proof.
  unfold nskipn, nlen. rewrite Nat2N.id. rewrite skipn_app, Nat.sub_diag, skipn_all. reflexivity.
Qed.

Lemma ends_with_not b a l : l <> [] -> Forall (fun c => c <> b) l -> ends_with_byte b (a ++ l) = false.
Proof.
  intros Hne H. unfold ends_with_byte. rewrite rev_app_distr.
  destruct (rev l) as [|x r] eqn:E.
  - exfalso. apply Hne. apply (f_equal (@rev N)) in E. now rewrite rev_involutive in E.
  - cbn [app]. apply N.eqb_neq. rewrite Forall_forall in H. apply H.
    apply in_rev. rewrite E. now left.
Qed.

Lemma opt_eqb_sym a b : opt_eqb a b = opt_eqb b a.
Proof. destruct a, b; cbn [opt_eqb]; try reflexivity. apply N.eqb_sym. Qed.

Lemma five_special s : In s five_schemes -> scheme_type_of s = STSpecialNotFile.
Proof.
  intros H. cbn [five_schemes In] in H.
  destruct H as [<-|[<-|[<-|[<-|[<-|[]]]]]]; reflexivity.
Qed.

Lemma five_chars s : In s five_schemes -> Forall (fun c => 32 < c /\ c < 128 /\ c <> 64) s.
Proof.
  intros H. cbn [five_schemes In] in H.
  destruct H as [<-|[<-|[<-|[<-|[<-|[]]]]]]; repeat constructor; lia.
Qed.

Lemma to_u32_ok n : n <= U32_MAX_P -> to_u32 n = POk n.
Proof. intros H. unfold to_u32. apply N.leb_le in H. now rewrite H. Qed.

Definition port_suffix (s : list N) (p : N) : list N :=
  if opt_eqb (default_port s) (Some p) then [] else 58 :: decimal p.

Section RT.
Variable dbg : bool.
Variable hp ho : list N -> result host.
Variable hd : host -> list N.

Lemma empty_host_check (h : host) (X Y : pres unit) :
  h <> HDomain [] -> match h with HDomain [] => X | _ => Y end = Y.
Proof. destruct h as [[|x d]|a|pc]; intros H; try reflexivity. contradiction. Qed.

(* the end of an authority-only special URL: "/" is appended as the path, no query, no fragment.
   se + 3 < nlen ser2 excludes the two "/." marker branches of with_query_and_fragment, which are taken only when
   path_start = scheme_end + 1 or path_start = scheme_end + 3 (here path_start = nlen ser2, scheme_end = se) *)
Lemma path_tail ser2 se ue hs he hi port :
  ends_with_byte 47 ser2 = false -> nlen ser2 + 1 <= U32_MAX_P -> se + 3 < nlen ser2 ->
  (' path_start <~ to_u32 (nlen ser2);;
   ' (ser3, _, remaining3) <~ parse_path_start dbg CUrlParser STSpecialNotFile true ser2 [];;
   with_query_and_fragment None CUrlParser STSpecialNotFile se ue hs he hi port path_start ser3 remaining3)
  = POk (mkUrl (ser2 ++ [47]) se ue hs he hi port (nlen ser2) None None).
Proof.
  intros He HB Hlt. rewrite to_u32_ok by lia. cbn [pbind].
  unfold parse_path_start. change (inp_split_first []) with (@None N, @nil N). cbv zeta.
  cbn [st_is_special]. rewrite He. cbn [negb].
  unfold parse_path. cbn [parse_path_loop push_pending].
  unfold finish_segment. rewrite slice_o_some by lia. rewrite N.sub_diag.
  change (nfirstn 0 (nskipn (nlen (ser2 ++ [47])) (ser2 ++ [47]))) with (@nil N).
  cbn [of_option pbind is_double_dot is_single_dot st_is_file andb].
  unfold file_path_fixup. cbn [st_is_file].
  unfold with_query_and_fragment.
  replace (nlen ser2 =? se + 1) with false by (symmetry; apply N.eqb_neq; lia).
  replace (nlen ser2 =? se + 3) with false by (symmetry; apply N.eqb_neq; lia).
  cbn [andb pbind]. reflexivity.
Qed.

Lemma accessors_of_result s ct h p rest ue ps port :
  host_fmt hd h = ct -> h <> HDomain [] ->
  (port = Some p \/ (port = None /\ default_port s = Some p)) ->
  let w := mkUrl (((s ++ [58]) ++ [47; 47]) ++ ct ++ rest) (nlen s) ue (nlen s + 3) (nlen s + 3 + nlen ct)
                 (hi_of_host h) port ps None None in
  scheme w = Some s /\ host_of w = Some (Some h) /\ port_or_known_default w = Some (Some p).
Proof.
  intros Hfmt Hne Hport w.
  assert (Hser0 : nlen ((s ++ [58]) ++ [47; 47]) = nlen s + 3)
    by (rewrite !nlen_app; change (nlen [58]) with 1; change (nlen [47; 47]) with 2; lia).
  assert (Hsch : scheme w = Some s).
  { unfold scheme, u_slice_to, w. cbn [ser scheme_end]. rewrite slice_to_o_some by (rewrite !nlen_app; lia).
    rewrite <- !app_assoc. now rewrite nfirstn_app_exact. }
  split; [exact Hsch|]. split.
  - destruct h as [[|x d]|a|pc]; [contradiction| | |];
      unfold host_of, u_slice, w; cbn [hosti hi_of_host ser host_start host_end]; try reflexivity.
    cbn [host_fmt] in Hfmt. rewrite slice_o_some by (rewrite ?nlen_app; change (nlen [58]) with 1; change (nlen [47; 47]) with 2; lia).
    replace (nlen s + 3 + nlen ct - (nlen s + 3)) with (nlen ct) by lia.
    rewrite <- Hser0. rewrite nskipn_app_exact.
    rewrite nfirstn_app_exact. cbn [bindo]. now rewrite Hfmt.
  - unfold port_or_known_default. destruct Hport as [->|[-> Hd]]; [reflexivity|].
    cbn [port]. fold w. rewrite Hsch. cbn [bindo]. now rewrite Hd.
Qed.

End RT.

(* the text a tuple serializes to, for a given host text *)
Lemma tuple_serialization_eq s t p :
  tuple_serialization s t p = s ++ 58 :: 47 :: 47 :: t ++ port_suffix s p.
Proof.
  unfold tuple_serialization, port_suffix, s_css.
  destruct (opt_eqb (default_port s) (Some p)); cbn [app]; [now rewrite app_nil_r|reflexivity].
Qed.

Lemma decimal_ascii p : p <= 65535 -> Forall (fun x => x < 128) (decimal p).
Proof.
  intros Hp. destruct (port_rt p Hp) as [_ Hd]. apply Forall_forall. intros x Hx.
  rewrite forallb_forall in Hd. specialize (Hd x Hx). unfold is_digit in Hd. lia.
Qed.

Definition plain_text (t : list N) : Prop := t <> [] /\ forallb plainc t = true.

Lemma plain_no_slash t : forallb plainc t = true -> Forall (fun x => x <> 47) t.
Proof.
  intros H. apply Forall_forall. intros x Hx. rewrite forallb_forall in H. apply H in Hx.
  apply plainc_facts in Hx. tauto.
Qed.
