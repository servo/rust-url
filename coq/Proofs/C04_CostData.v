(* Proofs/C04_CostData.v - cost of the header pre-parser of DataUrl::process (data-url/src/lib.rs:
   pretend_parse_data_url, find_comma_before_fragment, parse_header, remove_base64_suffix).
   Cost semantics of Model/Cost.v: one step per element examined by a loop / a forward or backward scan
   (trim_start_matches, trim_end_matches, the filtered byte iterators, skip_while), one step per String::push, slice,
   comparison with a literal; push_str of x = nlen x.  As in Proofs/C04_CostMime.v the step counts are functions that follow
   the data flow of the MODEL functions (Model/DataUrl.v) - the intermediate values are the model's own, so there is no
   second result to compare.
     scan_cost input    - everything except Mime::from_str: at most 13 |input| + 31 steps for EVERY byte input
     header_text input  - the String handed to Mime::from_str when the pre-parser gets that far: at most 3 |input| + 10
                          bytes; it is the string the model parses (header_text_model)
     process_cost input - scan_cost + mime_parse_cost of that string
     process_cost_linear: process_cost <= 13 |input| + 31 + (14 + P)(3 |input| + 11) + 4 when the header string parses to
                          a MIME type with P parameters: linear for a bounded number of parameters; the product term is
                          finding F-C04-9 reaching DataUrl::process. *)
From RU Require Import Base.Prelude Base.Utf8 Gen.Tables Model.HostT Model.UrlRecord Proofs.ListN.
From RU Require Import Model.Base64 Model.Mime Model.DataUrl Proofs.C19_Tables Proofs.C19_Pure Proofs.C04_CostMime.
From RU Require Proofs.C17_Total.

(* ---------------------------------------------------------------- contiguous parts *)
(* trimming and slicing return a contiguous part of the text: it is not longer, and its elements are elements of the text *)
Definition part (r s : list N) : Prop := exists a b, s = a ++ r ++ b.
Lemma part_refl s : part s s.
Proof. exists [], []. rewrite app_nil_r. reflexivity. Qed.
Lemma part_trans r s t : part r s -> part s t -> part r t.
Proof. intros (a & b & ->) (c & d & ->). exists (c ++ a), (b ++ d). rewrite <- !app_assoc. reflexivity. Qed.
Lemma part_len r s : part r s -> nlen r <= nlen s.
Proof. intros (a & b & ->). rewrite !nlen_app. lia. Qed.
Lemma part_Forall (P : N -> Prop) r s : part r s -> Forall P s -> Forall P r.
Proof. intros (a & b & ->) H. apply Forall_app in H. destruct H as [_ H]. apply Forall_app in H. exact (proj1 H). Qed.
Lemma part_firstn i (s : list N) : part (firstn i s) s.
Proof. exists [], (skipn i s). apply eq_sym, firstn_skipn. Qed.
Lemma part_skipn i (s : list N) : part (skipn i s) s.
Proof. exists (firstn i s), []. rewrite app_nil_r. apply eq_sym, firstn_skipn. Qed.
Lemma part_rev r s : part r s -> part (rev r) (rev s).
Proof. intros (a & b & ->). exists (rev b), (rev a). rewrite !rev_app_distr, app_assoc. reflexivity. Qed.

Lemma nlen_rev (l : list N) : nlen (rev l) = nlen l.
Proof. unfold nlen. rewrite rev_length. reflexivity. Qed.

Lemma drop_while_part f l : part (DataUrl.drop_while f l) l.
Proof.
  induction l as [|c r IH]; [apply part_refl|]. cbn [DataUrl.drop_while]. destruct (f c); [|apply part_refl].
  apply (part_trans _ r); [exact IH | exact (part_skipn 1 (c :: r))].
Qed.
Lemma drop_while_end_part f l : part (drop_while_end f l) l.
Proof. unfold drop_while_end. rewrite <- (rev_involutive l) at 2. apply part_rev, drop_while_part. Qed.
Lemma slice_from_part site s i r : slice_from site s i = Ok r -> part r s.
Proof. unfold slice_from. destruct (is_char_boundary s i); [|discriminate]. intros H. inversion H. apply part_skipn. Qed.
Lemma slice_to_part site s i r : slice_to site s i = Ok r -> part r s.
Proof. unfold slice_to. destruct (is_char_boundary s i); [|discriminate]. intros H. inversion H. apply part_firstn. Qed.

(* ---------------------------------------------------------------- scans *)
Fixpoint drop_while_k (f : N -> bool) (l : list N) : N :=
  match l with
  | [] => 0
  | c :: r => if f c then 1 + drop_while_k f r else 1
  end.

Lemma drop_while_k_le f l : drop_while_k f l <= nlen l.
Proof.
  induction l as [|c r IH]; [cbn; lia|]. cbn [drop_while_k]. rewrite nlen_cons. destruct (f c); lia.
Qed.
(* the filtered byte iterator: bytes examined until one passes the filter *)
Fixpoint filter_next_k (bytes : list N) : N :=
  match bytes with
  | [] => 0
  | b :: r => if is_skipped b then 1 + filter_next_k r else 1
  end.
Lemma filter_next_k_le bytes :
  filter_next_k bytes + match filter_next bytes with Some (_, r) => nlen r | None => 0 end <= nlen bytes.
Proof.
  induction bytes as [|b r IH]; [cbn; lia|]. cbn [filter_next_k filter_next]. rewrite nlen_cons.
  destruct (is_skipped b); [|lia]. destruct (filter_next r) as [[c t]|]; lia.
Qed.

(* the require!(..) sequences, for any comparison t *)
Fixpoint require_gen (t : N -> N -> bool) (lits bytes : list N) : option (list N) :=
  match lits with
  | [] => Some bytes
  | l :: ls => match filter_next bytes with
               | None => None
               | Some (b, r) => if t b l then require_gen t ls r else None
               end
  end.
Fixpoint require_gen_k (t : N -> N -> bool) (lits bytes : list N) : N :=
  match lits with
  | [] => 0
  | l :: ls => filter_next_k bytes
               + match filter_next bytes with
                 | None => 0
                 | Some (b, r) => if t b l then require_gen_k t ls r else 0
                 end
  end.
Lemma require_scheme_gen lits : forall bytes, require_scheme lits bytes = require_gen byte_eq_ignore_ascii_case lits bytes.
Proof.
  induction lits as [|l ls IH]; intros bytes; [reflexivity|]. cbn [require_scheme require_gen].
  destruct (filter_next bytes) as [[b r]|]; [|reflexivity]. destruct (byte_eq_ignore_ascii_case b l); [apply IH | reflexivity].
Qed.
Lemma require_nocase_gen lits : forall bytes, require_nocase lits bytes = require_gen byte_eq_ignore_ascii_case lits bytes.
Proof.
  induction lits as [|l ls IH]; intros bytes; [reflexivity|]. cbn [require_nocase require_gen].
  destruct (filter_next bytes) as [[b r]|]; [|reflexivity]. destruct (byte_eq_ignore_ascii_case b l); [apply IH | reflexivity].
Qed.
Lemma require_exact_gen lits : forall bytes, require_exact lits bytes = require_gen N.eqb lits bytes.
Proof.
  induction lits as [|l ls IH]; intros bytes; [reflexivity|]. cbn [require_exact require_gen].
  destruct (filter_next bytes) as [[b r]|]; [|reflexivity]. destruct (b =? l); [apply IH | reflexivity].
Qed.
Lemma require_gen_k_le t lits : forall bytes,
  require_gen_k t lits bytes + match require_gen t lits bytes with Some r => nlen r | None => 0 end <= nlen bytes.
Proof.
  induction lits as [|l ls IH]; intros bytes; cbn [require_gen_k require_gen]; [lia|].
  pose proof (filter_next_k_le bytes) as H. destruct (filter_next bytes) as [[b r]|]; [|lia].
  destruct (t b l); [|lia]. specialize (IH r). destruct (require_gen t ls r); lia.
Qed.

Fixpoint skip_while_next_k (rbytes : list N) : N :=
  match rbytes with
  | [] => 0
  | b :: r => if is_skipped b then 1 + skip_while_next_k r
              else if b =? T_DU_B64_SKIP then 1 + skip_while_next_k r
              else 1
  end.
Lemma skip_while_next_k_le rbytes :
  skip_while_next_k rbytes + match skip_while_next rbytes with Some (_, r) => nlen r | None => 0 end <= nlen rbytes.
Proof.
  induction rbytes as [|b r IH]; [cbn; lia|]. cbn [skip_while_next_k skip_while_next]. rewrite nlen_cons.
  destruct (is_skipped b); [destruct (skip_while_next r) as [[c t]|]; lia|].
  destruct (b =? T_DU_B64_SKIP); [destruct (skip_while_next r) as [[c t]|]; lia | lia].
Qed.

(* find_comma_before_fragment: bytes examined, two slices at the comma *)
Fixpoint fcbf_k (rest : list N) : N :=
  match rest with
  | [] => 0
  | byte :: rest' => if byte =? T_DU_COMMA then 3 else if byte =? T_DU_HASH then 1 else 1 + fcbf_k rest'
  end.
Lemma fcbf_k_le rest : fcbf_k rest <= nlen rest + 2.
Proof.
  induction rest as [|b r IH]; [cbn; lia|]. cbn [fcbf_k]. rewrite nlen_cons.
  destruct (b =? T_DU_COMMA); [lia|]. destruct (b =? T_DU_HASH); lia.
Qed.

(* the loop of parse_header: one step per byte, three pushes for an escaped byte, one otherwise *)
Fixpoint header_loop_k (in_query : bool) (bytes : list N) : N :=
  match bytes with
  | [] => 0
  | byte :: r =>
      if is_skipped byte then 1 + header_loop_k in_query r
      else if in_ranges byte T_DU_HDR_ENC then 4 + header_loop_k in_query r
      else if memb byte T_DU_HDR_QENC && in_query then 4 + header_loop_k in_query r
      else if byte =? T_DU_HDR_QMARK then 2 + header_loop_k true r
      else 2 + header_loop_k in_query r
  end.
Lemma header_loop_k_le bytes : forall q, header_loop_k q bytes <= 4 * nlen bytes.
Proof.
  induction bytes as [|b r IH]; intros q; [cbn; lia|]. cbn [header_loop_k]. rewrite nlen_cons.
  destruct (is_skipped b); [specialize (IH q); lia|].
  destruct (in_ranges b T_DU_HDR_ENC); [specialize (IH q); lia|].
  destruct (memb b T_DU_HDR_QENC && q); [specialize (IH q); lia|].
  destruct (b =? T_DU_HDR_QMARK); [specialize (IH true) | specialize (IH q)]; lia.
Qed.
Lemma header_loop_len bytes : forall q, nlen (header_loop q bytes) <= 3 * nlen bytes.
Proof.
  induction bytes as [|b r IH]; intros q; [cbn; lia|]. cbn [header_loop]. rewrite nlen_cons.
  destruct (is_skipped b); [specialize (IH q); lia|].
  destruct (in_ranges b T_DU_HDR_ENC).
  { unfold percent_encode. cbn [app]. rewrite !nlen_cons. specialize (IH q). lia. }
  destruct (memb b T_DU_HDR_QENC && q).
  { unfold percent_encode. cbn [app]. rewrite !nlen_cons. specialize (IH q). lia. }
  destruct (b =? T_DU_HDR_QMARK); rewrite nlen_cons; [specialize (IH true) | specialize (IH q)]; lia.
Qed.

(* ---------------------------------------------------------------- remove_base64_suffix *)
Definition remove_base64_suffix_k (s : list N) : N :=
  require_gen_k N.eqb T_DU_B64_EXACT (rev s)
  + match require_exact T_DU_B64_EXACT (rev s) with
    | None => 0
    | Some r1 =>
        require_gen_k byte_eq_ignore_ascii_case T_DU_B64_NOCASE r1
        + match require_nocase T_DU_B64_NOCASE r1 with
          | None => 0
          | Some r2 => skip_while_next_k r2 + 1
          end
    end.
Lemma remove_base64_suffix_k_le s : remove_base64_suffix_k s <= nlen s + 1.
Proof.
  unfold remove_base64_suffix_k. pose proof (require_gen_k_le N.eqb T_DU_B64_EXACT (rev s)) as H1.
  rewrite nlen_rev in H1. rewrite require_exact_gen. destruct (require_gen N.eqb T_DU_B64_EXACT (rev s)) as [r1|]; [|lia].
  pose proof (require_gen_k_le byte_eq_ignore_ascii_case T_DU_B64_NOCASE r1) as H2. rewrite require_nocase_gen.
  destruct (require_gen byte_eq_ignore_ascii_case T_DU_B64_NOCASE r1) as [r2|]; [|lia].
  pose proof (skip_while_next_k_le r2) as H3. destruct (skip_while_next r2) as [[b t]|]; lia.
Qed.
Lemma remove_base64_suffix_part s t : remove_base64_suffix s = Ok (Some t) -> part t s.
Proof.
  unfold remove_base64_suffix. destruct (require_exact _ _) as [r1|]; [|discriminate].
  destruct (require_nocase _ _) as [r2|]; [|discriminate]. destruct (skip_while_next r2) as [[b bytes]|]; [|discriminate].
  destruct (negb (b =? T_DU_B64_SEP)); [discriminate|]. unfold bind.
  destruct (slice_to 265 s (length bytes)) as [x| |] eqn:E; try discriminate. intros H. inversion H; subst.
  exact (slice_to_part 265 s _ t E).
Qed.

(* ---------------------------------------------------------------- parse_header *)
Definition header_trimmed (h : list N) : list N := drop_while_end is_header_trim (DataUrl.drop_while is_header_trim h).
Definition header_mime_text (h : list N) : list N :=
  match remove_base64_suffix (header_trimmed h) with Ok (Some t) => t | _ => header_trimmed h end.

(* without Mime::from_str *)
Definition parse_header_k (h : list N) : N :=
  drop_while_k is_header_trim h + drop_while_k is_header_trim (rev (DataUrl.drop_while is_header_trim h))
  + remove_base64_suffix_k (header_trimmed h)
  + 1 + (if starts_with_byte T_DU_HDR_PREFIX_IF (header_mime_text h) then nlen T_DU_HDR_PREFIX else 0)
  + header_loop_k false (header_mime_text h).

Lemma header_trimmed_part h : part (header_trimmed h) h.
Proof. unfold header_trimmed. eapply part_trans; [apply drop_while_end_part | apply drop_while_part]. Qed.
Lemma header_mime_text_part h : part (header_mime_text h) h.
Proof.
  unfold header_mime_text. pose proof (header_trimmed_part h) as H.
  destruct (remove_base64_suffix (header_trimmed h)) as [[t|]| |] eqn:E; try exact H.
  exact (part_trans _ _ _ (remove_base64_suffix_part _ t E) H).
Qed.
Lemma parse_header_k_le h : parse_header_k h <= 7 * nlen h + 12.
Proof.
  unfold parse_header_k. pose proof (drop_while_k_le is_header_trim h) as H1.
  pose proof (drop_while_k_le is_header_trim (rev (DataUrl.drop_while is_header_trim h))) as H2. rewrite nlen_rev in H2.
  pose proof (part_len _ _ (drop_while_part is_header_trim h)) as H3.
  pose proof (remove_base64_suffix_k_le (header_trimmed h)) as H4. pose proof (part_len _ _ (header_trimmed_part h)) as H5.
  pose proof (header_loop_k_le (header_mime_text h) false) as H6. pose proof (part_len _ _ (header_mime_text_part h)) as H7.
  change (nlen T_DU_HDR_PREFIX) with 10. destruct (starts_with_byte _ _); lia.
Qed.
Lemma header_string_len h : nlen (header_string (header_mime_text h)) <= 3 * nlen h + 10.
Proof.
  unfold header_string. rewrite nlen_app. pose proof (header_loop_len (header_mime_text h) false) as H1.
  pose proof (part_len _ _ (header_mime_text_part h)) as H2.
  destruct (starts_with_byte _ _); [change (nlen T_DU_HDR_PREFIX) with 10 | change (nlen (@nil N)) with 0]; lia.
Qed.

(* the model's parse_header parses exactly that string *)
Lemma parse_header_text h r : parse_header h = Ok r ->
  exists parsed, Mime.from_str (header_string (header_mime_text h)) = Ok parsed
                 /\ fst r = match parsed with Some m => m | None => fallback_mime end.
Proof.
  unfold parse_header, header_mime_text, header_trimmed. unfold bind at 1.
  destruct (remove_base64_suffix _) as [w| |]; try discriminate. unfold bind.
  assert (E : match w with Some t => t | None => drop_while_end is_header_trim (DataUrl.drop_while is_header_trim h) end
              = match w with Some t => t | None => drop_while_end is_header_trim (DataUrl.drop_while is_header_trim h) end)
    by reflexivity.
  destruct w as [t|].
  - destruct (from_str (header_string t)) as [p| |]; try discriminate. intros H. inversion H; subst. exists p. split; reflexivity.
  - destruct (from_str (header_string _)) as [p| |]; try discriminate. intros H. inversion H; subst. exists p. split; reflexivity.
Qed.

(* ---------------------------------------------------------------- DataUrl::process on the bytes *)
Definition after_colon_of (input : list N) : option (list N) :=
  match pretend_parse_data_url input with Ok (Some a) => Some a | _ => None end.
Definition header_of (input : list N) : option (list N) :=
  match after_colon_of input with
  | Some a => match find_comma_before_fragment a with Ok (Some (h, _)) => Some h | _ => None end
  | None => None
  end.
(* the String handed to Mime::from_str *)
Definition header_text (input : list N) : option (list N) :=
  match header_of input with Some h => Some (header_string (header_mime_text h)) | None => None end.

Definition pretend_parse_k (input : list N) : N :=
  let lt := DataUrl.drop_while is_c0_or_space input in
  drop_while_k is_c0_or_space input
  + require_gen_k byte_eq_ignore_ascii_case T_DU_SCHEME lt
  + match require_scheme T_DU_SCHEME lt with
    | None => 0
    | Some b1 =>
        filter_next_k b1
        + match filter_next b1 with
          | None => 0
          | Some (b, bytes) =>
              if negb (b =? T_DU_COLON) then 0
              else 1 + match slice_from 175 lt (length lt - length bytes) with
                       | Ok ac => drop_while_k is_c0_or_space (rev ac)
                       | _ => 0
                       end
          end
    end.

Definition scan_cost (input : list N) : N :=
  pretend_parse_k input
  + match after_colon_of input with
    | None => 0
    | Some a => fcbf_k a + match header_of input with Some h => parse_header_k h | None => 0 end
    end.

Definition process_cost (input : list N) : N :=
  scan_cost input + match header_text input with Some hs => mime_parse_cost hs | None => 0 end.

Lemma pretend_parse_k_le input : pretend_parse_k input <= 3 * nlen input + 1.
Proof.
  unfold pretend_parse_k. cbv zeta. pose proof (drop_while_k_le is_c0_or_space input) as H1.
  pose proof (part_len _ _ (drop_while_part is_c0_or_space input)) as H2.
  set (lt := DataUrl.drop_while is_c0_or_space input) in *.
  pose proof (require_gen_k_le byte_eq_ignore_ascii_case T_DU_SCHEME lt) as H3. rewrite require_scheme_gen.
  destruct (require_gen byte_eq_ignore_ascii_case T_DU_SCHEME lt) as [b1|]; [|lia].
  pose proof (filter_next_k_le b1) as H4. destruct (filter_next b1) as [[b bytes]|]; [|lia].
  destruct (negb (b =? T_DU_COLON)); [lia|].
  destruct (slice_from 175 lt (length lt - length bytes)) as [ac| |] eqn:E; try lia.
  pose proof (part_len _ _ (slice_from_part 175 lt _ ac E)) as H5. pose proof (drop_while_k_le is_c0_or_space (rev ac)) as H6.
  rewrite nlen_rev in H6. lia.
Qed.

Lemma after_colon_part input a : after_colon_of input = Some a -> part a input.
Proof.
  unfold after_colon_of, pretend_parse_data_url. pose proof (drop_while_part is_c0_or_space input) as H2.
  set (lt := DataUrl.drop_while is_c0_or_space input) in *.
  destruct (require_scheme T_DU_SCHEME lt) as [b1|]; [|discriminate].
  destruct (filter_next b1) as [[b bytes]|]; [|discriminate].
  destruct (negb (b =? T_DU_COLON)); [discriminate|]. unfold bind.
  destruct (slice_from 175 lt (length lt - length bytes)) as [ac| |] eqn:E; try discriminate.
  intros H. inversion H; subst.
  exact (part_trans _ _ _ (drop_while_end_part _ ac) (part_trans _ _ _ (slice_from_part 175 lt _ ac E) H2)).
Qed.

Lemma fcbf_loop_part a : forall rest i h b, fcbf_loop a i rest = Ok (Some (h, b)) -> part h a.
Proof.
  induction rest as [|c r IH]; intros i h b; cbn [fcbf_loop]; [discriminate|].
  destruct (c =? T_DU_COMMA).
  - unfold bind. destruct (slice_to 184 a i) as [x| |] eqn:E; try discriminate.
    destruct (slice_from 184 a (i + 1)) as [y| |]; try discriminate. intros H. inversion H; subst.
    exact (slice_to_part 184 a i h E).
  - destruct (c =? T_DU_HASH); [discriminate|]. apply IH.
Qed.
Lemma header_of_part input h : header_of input = Some h -> part h input.
Proof.
  unfold header_of. destruct (after_colon_of input) as [a|] eqn:Ea; [|discriminate].
  pose proof (after_colon_part input a Ea) as H1. unfold find_comma_before_fragment.
  destruct (fcbf_loop a 0 a) as [[[h' b]|]| |] eqn:E; try discriminate. intros H. inversion H; subst.
  exact (part_trans _ _ _ (fcbf_loop_part a a 0 h b E) H1).
Qed.

Theorem scan_cost_linear input : scan_cost input <= 13 * nlen input + 31.
Proof.
  unfold scan_cost. pose proof (pretend_parse_k_le input) as H1.
  destruct (after_colon_of input) as [a|] eqn:Ea; [|lia].
  pose proof (part_len _ _ (after_colon_part input a Ea)) as H2. pose proof (fcbf_k_le a) as H3.
  destruct (header_of input) as [h|] eqn:Eh; [|lia].
  pose proof (part_len _ _ (header_of_part input h Eh)) as H4. pose proof (parse_header_k_le h) as H5. lia.
Qed.

Theorem header_text_len input hs : header_text input = Some hs -> nlen hs <= 3 * nlen input + 10.
Proof.
  unfold header_text. destruct (header_of input) as [h|] eqn:Eh; [|discriminate]. intros H. inversion H; subst.
  pose proof (part_len _ _ (header_of_part input h Eh)). pose proof (header_string_len h). lia.
Qed.

(* header_text is the string the model hands to Mime::from_str: whenever DataUrl::process returns a DataUrl, its MIME type
   is the parse result of header_text (or the fallback text/plain;charset=US-ASCII) *)
Theorem header_text_model input d : process_bytes input = Ok (inl d) ->
  exists hs parsed, header_text input = Some hs /\ Mime.from_str hs = Ok parsed
                    /\ du_mime_type d = match parsed with Some m => m | None => fallback_mime end.
Proof.
  unfold process_bytes, header_text, header_of, after_colon_of. unfold bind at 1.
  destruct (pretend_parse_data_url input) as [[a|]| |]; try discriminate. unfold bind at 1.
  destruct (find_comma_before_fragment a) as [[[h b]|]| |]; try discriminate. unfold bind.
  destruct (parse_header h) as [r| |] eqn:E; try discriminate. intros H. inversion H; subst. cbn [du_mime_type].
  destruct (parse_header_text h r E) as (p & Hp & Hr). exists (header_string (header_mime_text h)), p. tauto.
Qed.

(* ---------------------------------------------------------------- the header string of a byte input is a &str *)
Theorem header_text_usv input hs : bytes input -> header_text input = Some hs -> usv_list hs.
Proof.
  intros Hb. unfold header_text. destruct (header_of input) as [h|] eqn:Eh; [|discriminate]. intros H. inversion H; subst.
  apply C17_Total.header_string_usv.
  exact (part_Forall _ _ _ (part_trans _ _ _ (header_mime_text_part h) (header_of_part input h Eh)) Hb).
Qed.

(* the whole pre-parser: linear for a bounded number of MIME parameters *)
Theorem process_cost_linear input hs m :
  bytes input -> header_text input = Some hs -> Mime.parse hs = Ok (Some m) ->
  process_cost input <= 13 * nlen input + 31 + (14 + plen (m_params m)) * (3 * nlen input + 11) + 4.
Proof.
  intros Hb Hh Hp. pose proof (header_text_usv input hs Hb Hh) as Hu. unfold process_cost. rewrite Hh. pose proof (scan_cost_linear input) as H1.
  pose proof (header_text_len input hs Hh) as H2. pose proof (mime_parse_cost_le hs m Hu Hp) as H3.
  assert ((14 + plen (m_params m)) * (nlen hs + 1) <= (14 + plen (m_params m)) * (3 * nlen input + 11)) by
    (apply N.mul_le_mono_l; lia).
  lia.
Qed.

Theorem process_cost_no_header input : header_text input = None -> process_cost input <= 13 * nlen input + 31.
Proof. intros Hh. unfold process_cost. rewrite Hh. pose proof (scan_cost_linear input). lia. Qed.
