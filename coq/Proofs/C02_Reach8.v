(* Proofs/C02_Reach8.v - histories with file records.
   CanonF = Canon (the four non-file canonical forms) or FileCanon (the fifth form, C02_FileCanon).
   ReachC7 = the histories of C02_Reach7.ReachC6 and
     - EVERY result of Url::parse without a base outside Known_file_drive - file inputs included (RC7_parse is
       literally R4_parse; C02_FileParse.parse_file_Canon5),
     - on file records: Url::set_fragment, Url::set_query, quirks::set_search, quirks::set_hash (RC7_step_file),
       Url::query_pairs_mut sessions (RC7_qpm, any record), joins with an empty, fragment-only or query-led
       reference against a file base (RC7_join_tail_file),
     - every constructor of ReachC6, applied to the non-file records of a ReachC7 history.
   Every ReachC7 record is CanonF, hence a fixpoint of re-parsing, well-formed and ASCII; ReachC7 is inside Reachable4.
   Host clauses: HostOK2, host_nonempty and host_no_wdl (C02_FileParse; proved of the host model in C02_FileHost). *)
From RU Require Import Proofs.C15_Ser.
From Coq Require Import String.
From RU Require Import Base.Prelude Model.HostT Model.Host Model.UrlRecord Model.Parser Model.Setters Model.WF
  Model.QueryPairs Proofs.C02_Reach Proofs.C02_AuthParts Proofs.C02_AuthMain Proofs.C02_Hist Proofs.C02_Canon
  Proofs.C02_JoinTail Proofs.C02_ReachPartial Proofs.C02_Form Proofs.C02_Reach3 Proofs.C02_SetHostCanon
  Proofs.C02_Reach4 Proofs.C02_Stmt4 Proofs.C02_JoinAbs Proofs.C02_JoinPath Proofs.C02_Reach6 Proofs.C02_Ovr
  Proofs.C02_Reach7 Proofs.C02_FileCanon Proofs.C02_FileParse Proofs.C02_FileSet.
Open Scope N_scope.
Open Scope list_scope.

(* the operations covered on file records: those that replace query or fragment only *)
Definition file_tail_op (o : op) : bool :=
  match o with OSetFragment _ | OSetQuery _ | OQSearch _ | OQHash _ => true | _ => false end.

Section ReachC7.
Variable dbg : bool.
Variable hp hpo : list N -> result host.
Variable hd : host -> list N.
Hypothesis HOK : HostOK2 hp hpo hd.
Hypothesis HNE : host_nonempty hp hpo.
Hypothesis HW : host_no_wdl hp hd.

Let HRT : HostRT hp hpo hd := proj1 HOK.
Let HAb : host_above hp hpo hd := proj1 (proj2 HOK).

Definition CanonF (u : url) : Prop := Canon hp hpo hd u \/ FileCanon hp hd u.

Inductive ReachC7 : url -> Prop :=
| RC7_parse ovr input u :                   (* = R4_parse: every parse result without a base *)
    usv_list input -> parse_url dbg hp hpo hd ovr None input = POk u ->
    Known_file_drive u = false -> ReachC7 u
| RC7_join_rel ovr b input u :
    ReachC7 b -> is_file b = false -> usv_list input -> rel_ref input = true ->
    parse_url dbg hp hpo hd ovr (Some b) input = POk u -> ReachC7 u
| RC7_join_scheme ovr b input u :
    ReachC7 b -> is_file b = false -> usv_list input -> nonfile_input input = true ->
    parse_url dbg hp hpo hd ovr (Some b) input = POk u -> ReachC7 u
| RC7_join_abs_any ovr b input u :
    Reachable4 dbg hp hpo hd b -> usv_list input -> abs_ref b input = true ->
    parse_url dbg hp hpo hd ovr (Some b) input = POk u -> ReachC7 u
| RC7_join_tail_file ovr b input u :        (* empty / fragment-only / query-led reference against a file base *)
    ReachC7 b -> is_file b = true -> usv_list input -> tail_ref input = true ->
    parse_url dbg hp hpo hd ovr (Some b) input = POk u -> ReachC7 u
| RC7_step u o u' :
    ReachC7 u -> is_file u = false -> op_args_ok o -> known_step3 dbg hp hpo hd u o = false ->
    apply_op dbg hp hpo hd u o = Some u' -> nlen (ser u') <= U32_MAX_P -> ReachC7 u'
| RC7_step_file u o u' :                    (* the query / fragment setters on a file record *)
    ReachC7 u -> is_file u = true -> file_tail_op o = true -> op_args_ok o ->
    apply_op dbg hp hpo hd u o = Some u' -> nlen (ser u') <= U32_MAX_P -> ReachC7 u'
| RC7_qpm u ops u' :                        (* file records included *)
    ReachC7 u -> Forall op_ok ops -> query_pairs_session dbg u ops = Some u' ->
    nlen (ser u') <= U32_MAX_P -> ReachC7 u'.

Lemma Canon_not_file u : Canon hp hpo hd u -> is_file u = false.
Proof.
  intros C. destruct (is_file u) eqn:E; [|reflexivity].
  pose proof (Canon_scheme_not_file hp hpo hd u C) as Hf. rewrite (is_file_scheme_type u E) in Hf. discriminate Hf.
Qed.

Lemma CanonF_nonfile u : CanonF u -> is_file u = false -> Canon hp hpo hd u.
Proof. intros [C|C] H; [exact C|]. rewrite (FileCanon_is_file hp hd u C) in H. discriminate H. Qed.

Lemma CanonF_file u : CanonF u -> is_file u = true -> FileCanon hp hd u.
Proof. intros [C|C] H; [|exact C]. rewrite (Canon_not_file u C) in H. discriminate H. Qed.

Lemma CanonF_not_drive u : CanonF u -> Known_file_drive u = false.
Proof. intros [C|C]; [exact (Canon_not_file_drive hp hpo hd u C) | exact (FileCanon_not_drive hp hd u C)]. Qed.

(* every parse result without a base, outside Known_file_drive, is of one of the five forms *)
Theorem parse_CanonF ovr input u : usv_list input ->
  parse_url dbg hp hpo hd ovr None input = POk u -> Known_file_drive u = false -> CanonF u.
Proof using HOK HNE HW HRT HAb.
  intros Hu Hp Hk. destruct (ref_trichotomy input) as [Hr | [Hn | Hf]].
  - exfalso. unfold rel_ref in Hr. unfold parse_url in Hp.
    destruct (parse_scheme CUrlParser (input_new_trim_c0 input)); [discriminate Hr | discriminate Hp].
  - left. exact (parse_Canon_g dbg hp hpo hd HRT HAb ovr input u Hu Hn Hp).
  - right. unfold file_input in Hf.
    destruct (parse_scheme CUrlParser (input_new_trim_c0 input)) as [[sch rem]|] eqn:Hs; [|discriminate Hf].
    destruct (scheme_type_of sch) eqn:Hst; try discriminate Hf.
    exact (parse_file_Canon5 dbg hp hpo hd HRT HAb (proj1 HNE) HW ovr input sch rem u Hu Hs Hst Hp Hk).
Qed.

Theorem step_file_CanonF u o u' : FileCanon hp hd u -> file_tail_op o = true -> op_args_ok o ->
  apply_op dbg hp hpo hd u o = Some u' -> nlen (ser u') <= U32_MAX_P -> FileCanon hp hd u'.
Proof using HOK HRT.
  intros C Ht Ha Ho Hb. destruct o; try discriminate Ht; cbn [apply_op op_args_ok] in *.
  - exact (set_fragment_File dbg hp hd u _ u' C Ha Ho Hb).
  - exact (set_query_File dbg hp hd u _ u' C Ha Ho Hb).
  - unfold q_set_search in Ho. exact (set_query_File dbg hp hd u _ u' C (search_arg_usv _ Ha) Ho Hb).
  - unfold q_set_hash in Ho. exact (set_fragment_File dbg hp hd u _ u' C (hash_arg_usv _ Ha) Ho Hb).
Qed.

Theorem qpm_CanonF u ops u' : CanonF u -> Forall op_ok ops -> query_pairs_session dbg u ops = Some u' ->
  nlen (ser u') <= U32_MAX_P -> CanonF u'.
Proof using HOK HRT.
  intros [C|C] Hops Hs Hb.
  - left. exact (qpm_Canon dbg hp hpo hd HRT u ops u' C Hops Hs Hb).
  - right. exact (qpm_File dbg hp hpo hd HRT u ops u' C Hops Hs Hb).
Qed.

Theorem ReachC7_CanonF u : ReachC7 u -> CanonF u.
Proof using HOK HNE HW HRT HAb.
  induction 1 as [ovr input u Hu Hp Hk | ovr b input u Hr IH Hf Hu Ht Hp | ovr b input u Hr IH Hf Hu Ht Hp
                 | ovr b input u Hr Hu Ht Hp | ovr b input u Hr IH Hf Hu Ht Hp
                 | u o u' Hr IH Hf Ha Hk Ho Hb | u o u' Hr IH Hf Ht Ha Ho Hb | u ops u' Hr IH Hops Hs Hb].
  - exact (parse_CanonF ovr input u Hu Hp Hk).
  - left. exact (join_rel_Canon_g dbg hp hpo hd HRT HAb ovr b input u (CanonF_nonfile b IH Hf) Hu Ht Hp).
  - left. exact (join_nonfile_Canon_g dbg hp hpo hd HRT HAb ovr b input u (CanonF_nonfile b IH Hf) Hu Ht Hp).
  - left. exact (join_abs_Canon_g dbg hp hpo hd HRT HAb ovr b input u Hu Ht Hp).
  - right. exact (join_tail_File dbg hp hpo hd ovr b input u (CanonF_file b IH Hf) Hu Ht Hp).
  - left. exact (canon_step_all dbg hp hpo hd HOK HNE u o u' (CanonF_nonfile u IH Hf) Ha Hk Ho Hb).
  - right. exact (step_file_CanonF u o u' (CanonF_file u IH Hf) Ht Ha Ho Hb).
  - exact (qpm_CanonF u ops u' IH Hops Hs Hb).
Qed.

Theorem CanonF_fixpoint u : CanonF u -> Fixpoint_of_reparse dbg hp hpo hd u /\ wf_b u = true /\ ascii (ser u).
Proof using HOK HRT.
  intros [C|C]; [exact (Canon_fixpoint dbg hp hpo hd HRT u C) | exact (FileCanon_fixpoint dbg hp hpo hd HRT u C)].
Qed.

Theorem reach_partial7 u : ReachC7 u ->
  Fixpoint_of_reparse dbg hp hpo hd u /\ wf_b u = true /\ ascii (ser u).
Proof using HOK HNE HW HRT HAb. intros H. exact (CanonF_fixpoint u (ReachC7_CanonF u H)). Qed.

(* the file-record operations of RC7_step_file are in no known step class *)
Lemma file_tail_op_unknown u o : file_tail_op o = true -> known_step3 dbg hp hpo hd u o = false.
Proof. intros H. apply known_step3_host_or_path. destruct o; try discriminate H; reflexivity. Qed.

Theorem ReachC7_Reachable4 u : ReachC7 u -> Reachable4 dbg hp hpo hd u.
Proof using HOK HNE HW HRT HAb.
  assert (nd : forall v, ReachC7 v -> Known_file_drive v = false)
    by (intros v Hv; exact (CanonF_not_drive v (ReachC7_CanonF v Hv))).
  intros H. pose proof (nd u H) as Hd. revert Hd.
  induction H as [ovr input u Hu Hp Hk | ovr b input u Hr IH Hf Hu Ht Hp | ovr b input u Hr IH Hf Hu Ht Hp
                 | ovr b input u Hr Hu Ht Hp | ovr b input u Hr IH Hf Hu Ht Hp
                 | u o u' Hr IH Hf Ha Hk Ho Hb | u o u' Hr IH Hf Ht Ha Ho Hb | u ops u' Hr IH Hops Hs Hb]; intros Hd.
  - exact (R4_parse dbg hp hpo hd ovr input u Hu Hp Hk).
  - exact (R4_join dbg hp hpo hd ovr b input u (IH (nd b Hr)) Hu Hp Hd).
  - exact (R4_join dbg hp hpo hd ovr b input u (IH (nd b Hr)) Hu Hp Hd).
  - exact (R4_join dbg hp hpo hd ovr b input u Hr Hu Hp Hd).
  - exact (R4_join dbg hp hpo hd ovr b input u (IH (nd b Hr)) Hu Hp Hd).
  - exact (R4_step dbg hp hpo hd u o u' (IH (nd u Hr)) Ha Hk Ho Hd).
  - exact (R4_step dbg hp hpo hd u o u' (IH (nd u Hr)) Ha (file_tail_op_unknown u o Ht) Ho Hd).
  - exact (R4_qpm dbg hp hpo hd u ops u' (IH (nd u Hr)) Hops Hs Hd).
Qed.

Theorem ReachC6_C7 u : ReachC6 dbg hp hpo hd u -> ReachC7 u.
Proof using HOK HNE HRT HAb.
  intros H. induction H as [ovr input u Hu Hn Hp | ovr b input u Hr IH Hu Ht Hp | ovr b input u Hr IH Hu Ht Hp
                           | ovr b input u Hr Hu Ht Hp | u o u' Hr IH Ha Hk Ho Hb | u ops u' Hr IH Hops Hs Hb].
  - apply (RC7_parse ovr input u Hu Hp). apply (Canon_not_file_drive hp hpo hd).
    exact (parse_Canon_g dbg hp hpo hd HRT HAb ovr input u Hu Hn Hp).
  - exact (RC7_join_rel ovr b input u IH (Canon_not_file b (ReachC6_Canon dbg hp hpo hd HOK HNE b Hr)) Hu Ht Hp).
  - exact (RC7_join_scheme ovr b input u IH (Canon_not_file b (ReachC6_Canon dbg hp hpo hd HOK HNE b Hr)) Hu Ht Hp).
  - exact (RC7_join_abs_any ovr b input u Hr Hu Ht Hp).
  - exact (RC7_step u o u' IH (Canon_not_file u (ReachC6_Canon dbg hp hpo hd HOK HNE u Hr)) Ha Hk Ho Hb).
  - exact (RC7_qpm u ops u' IH Hops Hs Hb).
Qed.
End ReachC7.

(* non-vacuity, on the host model (idna_clean) *)
Definition m_parse (s : string) : option url :=
  match parse_url true mhp host_parse_opaque host_display None None (B s) with POk u => Some u | _ => None end.
Definition m_ok (o : option url) (expect : string) : bool :=
  match o with
  | Some u => list_eqb (ser u) (B expect) && m_fix u && is_file u && negb (Known_file_drive u)
  | None => false
  end.

(* the three entries of parse_file (two slashes with a host, with "localhost", without a host; one slash; no slash),
   dot segments and back-slashes in a file path; setters and a tail join on file records *)
Example reach7_example :
  m_ok (m_parse "file://h.x/a/../b c?q#f") "file://h.x/b%20c?q#f" = true
  /\ m_ok (m_parse "file://localhost/x\y") "file:///x/y" = true
  /\ m_ok (m_parse "file:////x") "file:///x" = true
  /\ m_ok (m_parse "file:/x/./y") "file:///x/y" = true
  /\ m_ok (m_parse "file:x") "file:///x" = true
  /\ m_ok (m_hist "file:///a/b" [OSetFragment (Some (B "z")); OSetQuery (Some (B "k v")); OQHash (B "#w")]) "file:///a/b?k%20v#w" = true
  /\ m_ok (m_join "file://h.x/a/b?q#f" "?k") "file://h.x/a/b?k" = true
  /\ m_ok (m_join "file://h.x/a/b?q#f" "#g") "file://h.x/a/b?q#g" = true
  /\ tail_ref (B "?k") && file_tail_op (OQHash (B "#w")) && file_input (B "file:x") = true.
Proof. vm_compute. repeat split. Qed.
