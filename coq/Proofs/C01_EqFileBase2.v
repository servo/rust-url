(* Proofs/C01_EqFileBase2.v - the path-relative arm of the file state against a FILE base, entered from the scheme
   state: reference "file:" R with R path-relative (first character not '/', '\', '?', '#'; R does not start with a
   Windows drive letter).  Same arm of the Standard's file state and of parser.rs parse_file as for the scheme-less
   reference (Proofs/C01_EqFileBase.v); here the position is behind "file:" and the URL the file state starts from
   has the scheme set. *)
From Coq Require Import ZifyBool ZifyN.
From RU Require Import Base.Prelude Model.HostT Model.UrlRecord Model.Parser Model.Setters Model.Host
  Model.KnownC01 Spec.Whatwg Spec.WhatwgHostParse Proofs.C02_Path Proofs.C02_PathL1 Proofs.C08_Input
  Proofs.C01_EqRun Proofs.C01_EqApi Proofs.C01_EqRef Proofs.C01_EqPath Proofs.C01_EqRelPath Proofs.C01_EqRelArms
  Proofs.C01_EqSpSpec Proofs.C01_EqSpPath Proofs.C01_EqSpBase Proofs.C01_EqAsm Proofs.C01_EqShape
  Proofs.C01_EqCover Proofs.C01_EqFileSpec Proofs.C01_EqFilePath Proofs.C01_EqFile Proofs.C01_EqFileBase.

(* specification side: the file state at any position *)
Section SpecFileRelG.
Variable shp : bool -> list N -> option spec_host.
Variable inp : list N.
Variable sb : spec_url.
Hypothesis Hop : has_opaque_path sb = false.
Hypothesis Hf : list_eqb (su_scheme sb) str_file = true.

Notation RunsB := (Runs shp inp (Some sb)).

Theorem runs_file_rel_path_g pre u c t : inp = pre ++ c :: t -> (u = empty_url \/ u = u_file0) ->
  is_sl c = false -> (c =? 63) = false -> (c =? 35) = false ->
  starts_with_windows_drive_letter (c :: t) = false -> last_not_nwdl (path_segments sb) = true ->
  RunsB (at_pos StFile pre [] false false false u)
        (BDone (file_tail (fkeep sb (removelast (path_segments sb)))
                          (spath_f (c :: t) (removelast (path_segments sb)) []))).
Proof. exact (runs_file_state_rel_path shp inp sb Hop Hf pre u c t). Qed.

End SpecFileRelG.

(* "file:" R against a file base, R path-relative *)
Theorem spec_file_same_path shp sb input c t :
  spec_scheme (spec_clean input) = Some (str_file, c :: t) ->
  has_opaque_path sb = false -> list_eqb (su_scheme sb) str_file = true ->
  is_sl c = false -> (c =? 63) = false -> (c =? 35) = false ->
  starts_with_windows_drive_letter (c :: t) = false -> last_not_nwdl (path_segments sb) = true ->
  spec_basic_url_parse shp input (Some sb)
  = BDone (file_tail (fkeep sb (removelast (path_segments sb))) (spath_f (c :: t) (removelast (path_segments sb)) [])).
Proof.
  intros Hs Hop Hf Esl E63 E35 Hw Hl. set (inp := spec_clean input) in *.
  apply spec_parse_of_runs. fold inp.
  destruct (runs_scheme shp inp (Some sb) str_file (c :: t) (BDone (file_tail (fkeep sb (removelast (path_segments sb)))
              (spath_f (c :: t) (removelast (path_segments sb)) []))) Hs) as (pre & Hin & K).
  apply K. clear K.
  apply (runs_scheme_colon_file shp inp (Some sb) pre (c :: t) _ Hin).
  assert (inp = (pre ++ [58]) ++ c :: t) as Hin1 by (rewrite Hin, <- app_assoc; reflexivity).
  exact (runs_file_rel_path_g shp inp sb Hop Hf (pre ++ [58]) u_file0 c t Hin1 (or_intror eq_refl) Esl E63 E35 Hw Hl).
Qed.

(* model side: parse_file with a file base on a path-relative text *)
Section ModelFileRel.
Variable dbg : bool.
Variable hp hpo : list N -> result host.
Variable hd : host -> list N.
Variable shs : spec_host -> list N.

Lemma parse_file_rel_path b sb l0 c t : related dbg shs b sb -> has_opaque_path sb = false ->
  forallb no_slash (Whatwg.path_segments sb) = true -> Whatwg.path_segments sb <> [] ->
  last_not_nwdl (Whatwg.path_segments sb) = true ->
  ntnl l0 = c :: t -> is_sl c = false -> (c =? 63) = false -> (c =? 35) = false ->
  starts_with_windows_drive_letter (c :: t) = false ->
  parse_file dbg hp hd None CUrlParser STFile (Some b) l0
  = arm_expr_f dbg b (Bs (nfirstn (path_start b) (ser b)) (removelast (Whatwg.path_segments sb))) l0.
Proof.
  intros R Hop HnsP HneP Hlast Ecl Esl E63 E35 Hw.
  destruct (base_path_facts dbg shs b sb R Hop) as (Lpre & Ebq & _).
  set (pre := nfirstn (path_start b) (ser b)) in *. set (P := Whatwg.path_segments sb) in *. fold (flat P) in Ebq.
  destruct (inp_next_some l0 c t Ecl) as (r1 & En & Er1 & _).
  unfold parse_file, inp_split_first. rewrite En. cbv iota beta.
  rewrite is_sl_model, Esl, E63, E35. rewrite swdl_segment_spec, Ecl, Hw. cbn [negb].
  rewrite Ebq, <- Lpre.
  rewrite (shorten_path_segments_f pre P HnsP HneP Hlast). cbn [pbind]. unfold arm_expr_f. rewrite <- Lpre. reflexivity.
Qed.

End ModelFileRel.

(* the class: "file:" R against a file base, R path-relative *)
Definition in_class_file_same_path (sb : spec_url) (input : list N) : bool :=
  file_base_ok sb
  && match spec_scheme (spec_clean input) with
     | Some (sch, c :: t) =>
         list_eqb sch str_file && negb (is_sl c) && negb (c =? 63) && negb (c =? 35)
         && negb (starts_with_windows_drive_letter (c :: t))
         && fpath_ok true (c :: t) (removelast (Whatwg.path_segments sb)) []
         && strip_stable (fst (spath_f (c :: t) (removelast (Whatwg.path_segments sb)) []))
     | _ => false
     end.

Section SameClassF.
Variable dbg : bool.
Variable hp hpo : list N -> result host.
Variable hd : host -> list N.
Variable shp : bool -> list N -> option spec_host.
Variable shs : spec_host -> list N.

Theorem class_file_same_path input b sb : usv_list input -> related dbg shs b sb ->
  spec_base_ok sb = true -> in_class_file_same_path sb input = true ->
  agree_good dbg shs (parse_url dbg hp hpo hd None (Some b) input) (spec_basic_url_parse shp input (Some sb))
  /\ (forall su u, spec_basic_url_parse shp input (Some sb) = BDone su -> parse_url dbg hp hpo hd None (Some b) input = POk u ->
        full_base dbg shs u su).
Proof.
  intros Hu R Hbok Hc. unfold in_class_file_same_path in Hc.
  apply andb_true_iff in Hbok. destruct Hbok as [Hcan HnsP].
  apply andb_true_iff in Hc. destruct Hc as [Hb Hok].
  destruct (file_base_ok_facts sb Hb) as (Hop & Hsf & (h & Eh) & HneP & Hlast).
  assert (list_eqb (su_scheme sb) str_file = true) as Hf by (apply list_eqb_spec; exact Hsf).
  destruct (spec_scheme (spec_clean input)) as [[sch [|c t]]|] eqn:Es; try discriminate Hok.
  apply andb_true_iff in Hok. destruct Hok as [Hok Hstab]. apply andb_true_iff in Hok. destruct Hok as [Hok Hfok].
  apply andb_true_iff in Hok. destruct Hok as [Hok Hw]. apply andb_true_iff in Hok. destruct Hok as [Hok E35].
  apply andb_true_iff in Hok. destruct Hok as [Hok E63]. apply andb_true_iff in Hok. destruct Hok as [Hsch Esl].
  apply negb_true_iff in Esl, E63, E35, Hw. apply list_eqb_spec in Hsch. subst sch.
  set (P := Whatwg.path_segments sb) in *.
  set (su := file_tail (fkeep sb (removelast P)) (spath_f (c :: t) (removelast P) [])).
  assert (spec_basic_url_parse shp input (Some sb) = BDone su) as HS
    by exact (spec_file_same_path shp sb input c t Es Hop Hf Esl E63 E35 Hw Hlast).
  (* the model *)
  destruct (parse_url_file_scheme_base dbg shs hp hpo hd b sb input _ Hu Es R Hsf) as (rem & Hur & Hrem & Epu).
  rewrite (parse_file_rel_path dbg hp hd shs b sb rem c t R Hop HnsP HneP Hlast Hrem Esl E63 E35 Hw) in Epu. fold P in Epu.
  destruct (base_path_facts dbg shs b sb R Hop) as (_ & _ & HqhP). fold P in HqhP.
  rewrite <- Hrem in Hfok, Hstab.
  destruct (path_arm_related_f dbg shs b sb h (removelast P) rem R Hop Hsf Eh Hur
              (no_slash_removelast P HnsP) (removelast_prefix_no_qh_s P HqhP) Hfok Hstab) as (u & HO & Ru & Hbo).
  rewrite Hrem in Ru, Hbo. fold su in Ru, Hbo.
  assert (base_shape_ok su = true) as Hshape by (apply file_tail_shape_ok; reflexivity).
  assert (agree_good dbg shs (parse_url dbg hp hpo hd None (Some b) input) (spec_basic_url_parse shp input (Some sb))) as G.
  { rewrite HS. apply agree_good_intro; [|intros su' E; inversion E; subst su'; exact Hbo].
    rewrite Epu. exact (oob_agree dbg shs _ u _ HO Ru). }
  split; [exact G|]. intros su' u' HS' HM. rewrite HS' in G. rewrite HS in HS'. inversion HS'; subst su'.
  split; [exact (agree_good_chain dbg shs _ su u' G HM) | exact Hshape].
Qed.

End SameClassF.

Theorem class_file_same_path_model dbg idna : forall input b sb,
  usv_list input -> full_base dbg spec_host_serializer b sb -> in_class_file_same_path sb input = true ->
  agree_good dbg spec_host_serializer
    (parse_url dbg (host_parse idna) host_parse_opaque host_display None (Some b) input)
    (spec_basic_url_parse (spec_host_parser idna) input (Some sb))
  /\ (forall su u, spec_basic_url_parse (spec_host_parser idna) input (Some sb) = BDone su ->
        parse_url dbg (host_parse idna) host_parse_opaque host_display None (Some b) input = POk u ->
        full_base dbg spec_host_serializer u su).
Proof.
  intros input b sb Hu [[R Hok] _] Hc. exact (class_file_same_path dbg _ _ _ _ _ input b sb Hu R Hok Hc).
Qed.

(* non-vacuity: against the parse result of file://h/tmp/x the references  file:y ,  fIle:a/../b?q#f  are in the class
   (and in class 1 of Known_C01); both sides give file://h/tmp/y and file://h/tmp/b?q#f *)
Example class_file_same_path_nonvacuous :
  let idna := id_idna in
  let P base i := parse_url true (host_parse idna) host_parse_opaque host_display None base i in
  let S sbase i := spec_basic_url_parse (spec_host_parser idna) i sbase in
  let i1 := [102;105;108;101;58;121] in
  let i2 := [102;73;108;101;58;97;47;46;46;47;98;63;113;35;102] in
  match P None file_base_text, S None file_base_text with
  | POk b, BDone sb =>
      let ok i h := in_class_file_same_path sb i = true /\ known_c01 (Some b) i = 1
                    /\ match P (Some b) i, S (Some sb) i with
                       | POk u, BDone su => q_href u = h
                                            /\ api_of_model true u = Some (spec_api_list spec_host_serializer su)
                       | _, _ => False end in
      ok i1 [102;105;108;101;58;47;47;104;47;116;109;112;47;121]
      /\ ok i2 [102;105;108;101;58;47;47;104;47;116;109;112;47;98;63;113;35;102]
  | _, _ => False
  end.
Proof. vm_compute. repeat split. Qed.
