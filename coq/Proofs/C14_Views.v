(* Proofs/C14_Views.v - iterator, Display, Cow, size_hint, if_any agree with encode/decode. *)
From RU Require Import Base.Prelude Model.AsciiSet Model.PercentEncoding
  Proofs.C14_Enc.

(* table-based per-byte encoding, as the iterator produces it *)
Definition enc1_t (S : aset) (b : N) : list N := if should_encode S b then enc_byte b else [b].
Definition encode_t (S : aset) (bs : list N) : list N := flat_map (enc1_t S) bs.

Lemma encode_t_is_encode S bs : bytes bs -> encode_t S bs = encode S bs.
Proof.
  induction bs as [|b r IH]; intros H; [reflexivity|].
  inversion H as [|? ? Hb Hr]; subst. unfold encode_t, encode. cbn [flat_map].
  unfold enc1_t. rewrite enc_byte_is_spec by exact Hb. f_equal. apply IH. exact Hr.
Qed.

Lemma span_keep_spec S bs u rest : span_keep S bs = (u, rest) ->
  bs = u ++ rest /\ encode_t S u = u /\ Forall (fun b => should_encode S b = false) u
  /\ (length rest <= length bs)%nat
  /\ match rest with [] => True | b :: _ => should_encode S b = true end.
Proof.
  revert u rest. induction bs as [|b r IH]; intros u rest H; cbn [span_keep] in H.
  - inversion H; subst. repeat split; constructor.
  - destruct (should_encode S b) eqn:E.
    + inversion H; subst. repeat split; try constructor. exact E.
    + destruct (span_keep S r) as [u' rest'] eqn:Es. inversion H; subst.
      destruct (IH u' rest eq_refl) as (H1 & H2 & H3 & H4 & H5).
      repeat split.
      * cbn [app]. f_equal. exact H1.
      * unfold encode_t. cbn [flat_map]. unfold enc1_t at 1. rewrite E. cbn [app]. f_equal. exact H2.
      * constructor; assumption.
      * cbn [length]. lia.
      * exact H5.
Qed.

Lemma pe_next_spec S bs c rest : bytes bs -> pe_next S bs = Some (c, rest) ->
  encode_t S bs = c ++ encode_t S rest /\ c <> [] /\ (length rest < length bs)%nat /\ bytes rest.
Proof.
  intros Hby.
  destruct bs as [|b r]; cbn [pe_next]; [discriminate|].
  inversion Hby as [|? ? Hb Hr]; subst.
  destruct (should_encode S b) eqn:E.
  - intros H. inversion H; subst. repeat split.
    + unfold encode_t. cbn [flat_map]. unfold enc1_t at 1. rewrite E. reflexivity.
    + rewrite enc_byte_is_spec by exact Hb. discriminate.
    + cbn [length]. lia.
    + exact Hr.
  - destruct (span_keep S r) as [u rest'] eqn:Es. intros H. inversion H; subst.
    destruct (span_keep_spec _ _ _ _ Es) as (H1 & H2 & H3 & H4 & H5).
    repeat split.
    + unfold encode_t. cbn [flat_map]. unfold enc1_t at 1. rewrite E. cbn [app]. f_equal.
      fold (encode_t S r). rewrite H1. unfold encode_t. rewrite flat_map_app.
      fold (encode_t S u). rewrite H2. reflexivity.
    + discriminate.
    + cbn [length]. lia.
    + rewrite H1 in Hr. apply bytes_app in Hr. tauto.
Qed.

Lemma pe_next_none S bs : pe_next S bs = None <-> bs = [].
Proof.
  destruct bs as [|b r]; cbn [pe_next]; [tauto|].
  destruct (should_encode S b); [split; discriminate|].
  destruct (span_keep S r); split; discriminate.
Qed.

(* with fuel for every byte the chunks are non-empty, at most one per byte, and spell the encoding *)
Lemma chunks_f_spec n : forall S bs, bytes bs -> (length bs <= n)%nat ->
  concat (pe_chunks_f n S bs) = encode_t S bs /\ Forall (fun c => c <> []) (pe_chunks_f n S bs)
  /\ (length (pe_chunks_f n S bs) <= length bs)%nat /\ (bs <> [] -> (1 <= length (pe_chunks_f n S bs))%nat).
Proof.
  induction n as [|n IH]; intros S bs Hby Hlen.
  - destruct bs; [repeat split; (constructor || congruence) | cbn in Hlen; lia].
  - cbn [pe_chunks_f]. destruct (pe_next S bs) as [[c rest]|] eqn:En.
    + destruct (pe_next_spec _ _ _ _ Hby En) as (H1 & H2 & H3 & H4).
      destruct (IH S rest H4 ltac:(lia)) as (I1 & I2 & I3 & _). cbn [concat length].
      split; [rewrite I1; symmetry; exact H1|]. split; [constructor; assumption|]. split; lia.
    + apply pe_next_none in En. subst. repeat split; (constructor || congruence).
Qed.

(* fuel irrelevance: any fuel >= length gives the same chunks *)
Lemma chunks_f_fuel n : forall m S bs, bytes bs -> (length bs <= n)%nat -> (length bs <= m)%nat ->
  pe_chunks_f n S bs = pe_chunks_f m S bs.
Proof.
  induction n as [|n IH]; intros m S bs Hby Hn Hm.
  - destruct bs; [|cbn in Hn; lia]. destruct m; reflexivity.
  - destruct m as [|m].
    + destruct bs; [reflexivity | cbn in Hm; lia].
    + cbn [pe_chunks_f]. destruct (pe_next S bs) as [[c rest]|] eqn:En; [|reflexivity].
      destruct (pe_next_spec _ _ _ _ Hby En) as (H1 & H2 & H3 & H4).
      f_equal. apply IH; [exact H4 | lia | lia].
Qed.

(* the iterator protocol: chunks = first next, then chunks of the rest *)
Theorem pe_chunks_unfold S bs : bytes bs ->
  pe_chunks S bs = match pe_next S bs with None => [] | Some (c, rest) => c :: pe_chunks S rest end.
Proof.
  intros Hby. unfold pe_chunks. destruct bs as [|b r]; [reflexivity|].
  cbn [length pe_chunks_f]. destruct (pe_next S (b :: r)) as [[c rest]|] eqn:En; [|reflexivity].
  destruct (pe_next_spec _ _ _ _ Hby En) as (H1 & H2 & H3 & H4).
  f_equal. apply chunks_f_fuel; [exact H4 | cbn [length] in H3; lia | lia].
Qed.

Theorem pe_display_is_encode S bs : bytes bs -> pe_display S bs = encode S bs.
Proof.
  intros Hby. unfold pe_display, pe_chunks.
  destruct (chunks_f_spec (length bs) S bs Hby ltac:(lia)) as [H _].
  rewrite H. apply encode_t_is_encode. exact Hby.
Qed.

Theorem pe_chunks_nonempty S bs : bytes bs -> Forall (fun c => c <> []) (pe_chunks S bs).
Proof.
  intros Hby. unfold pe_chunks.
  exact (proj1 (proj2 (chunks_f_spec (length bs) S bs Hby ltac:(lia)))).
Qed.

Theorem pe_size_hint_ok S bs : bytes bs ->
  let n := N.of_nat (length (pe_chunks S bs)) in
  fst (pe_size_hint bs) <= n /\ match snd (pe_size_hint bs) with Some hi => n <= hi | None => True end.
Proof.
  intros Hby. cbv zeta.
  destruct (chunks_f_spec (length bs) S bs Hby ltac:(lia)) as (_ & _ & H1 & H2). fold (pe_chunks S bs) in H1, H2.
  destruct bs as [|b r].
  - cbn. lia.
  - cbn [pe_size_hint fst snd]. specialize (H2 ltac:(discriminate)). lia.
Qed.

(* From<PercentEncode> for Cow<str>: the value is the encoding; pe_cow_kind says which variant carries it *)
Theorem pe_cow_value S bs : bytes bs -> snd (pe_cow S bs) = encode S bs.
Proof.
  intros Hby. rewrite <- pe_display_is_encode by exact Hby. unfold pe_cow, pe_display.
  rewrite (pe_chunks_unfold S bs Hby).
  destruct (pe_next S bs) as [[c1 r1]|] eqn:E1; [|reflexivity].
  destruct (pe_next_spec _ _ _ _ Hby E1) as (_ & _ & _ & Hr1).
  rewrite (pe_chunks_unfold S r1 Hr1).
  destruct (pe_next S r1) as [[c2 r2]|] eqn:E2.
  - cbn [snd concat]. reflexivity.
  - cbn [snd concat]. rewrite app_nil_r. reflexivity.
Qed.

Lemma encode_len_ge S bs : (length bs <= length (encode S bs))%nat.
Proof.
  induction bs as [|b r IH]; [cbn; lia|]. rewrite encode_cons, app_length. unfold enc1.
  destruct (should_encode S b); cbn [length enc_byte_spec]; lia.
Qed.

Lemma encode_id_iff S bs : encode S bs = bs <-> Forall (fun b => should_encode S b = false) bs.
Proof.
  induction bs as [|b r IH]; [split; [constructor|reflexivity]|].
  rewrite encode_cons. unfold enc1. destruct (should_encode S b) eqn:E.
  - split; intros H.
    + exfalso. apply (f_equal (@length N)) in H. cbn [app length enc_byte_spec] in H.
      pose proof (encode_len_ge S r). lia.
    + inversion H; congruence.
  - cbn [app]. split; intros H.
    + assert (encode S r = r) as H1 by congruence. constructor; [exact E | apply IH; exact H1].
    + inversion H as [|? ? _ H2]; subst. f_equal. apply IH. exact H2.
Qed.

Theorem pe_cow_kind S bs : bytes bs ->
  match fst (pe_cow S bs) with
  | BorrowedInput => encode S bs = bs /\ snd (pe_cow S bs) = bs
  | BorrowedStatic => bs = [] \/ exists b, bs = [b] /\ should_encode S b = true
  | Owned => encode S bs <> bs
  end.
Proof.
  intros Hby. pose proof (pe_cow_value S bs Hby) as Hv. revert Hv. unfold pe_cow.
  destruct (pe_next S bs) as [[c1 r1]|] eqn:E1.
  2:{ intros _. left. apply pe_next_none in E1. exact E1. }
  destruct (pe_next_spec _ _ _ _ Hby E1) as (Henc1 & _ & _ & Hr1).
  destruct (pe_next S r1) as [[c2 r2]|] eqn:E2.
  - (* two chunks: some byte was encoded *)
    intros _. cbn [fst]. intros Hid. apply encode_id_iff in Hid.
    destruct bs as [|b r]; [discriminate|]. cbn [pe_next] in E1.
    inversion Hid as [|? ? Hb0 Hr0]; subst. rewrite Hb0 in E1.
    destruct (span_keep S r) as [u rest] eqn:Es. inversion E1; subst.
    destruct (span_keep_spec _ _ _ _ Es) as (H1 & _ & _ & _ & H5).
    destruct r1 as [|x r1']; [discriminate|].
    rewrite H1 in Hr0. apply Forall_app in Hr0. destruct Hr0 as [_ Hr0].
    inversion Hr0; subst. congruence.
  - apply pe_next_none in E2. subst r1. cbn [fst snd].
    destruct bs as [|b r]; [discriminate|]. cbn [pe_next] in E1.
    destruct (should_encode S b) eqn:E.
    + inversion E1; subst. intros _. right. exists b. split; [reflexivity|exact E].
    + destruct (span_keep S r) as [u rest] eqn:Es. inversion E1; subst.
      destruct (span_keep_spec _ _ _ _ Es) as (H1 & _ & _ & _ & _). rewrite app_nil_r in H1. subst u.
      intros Hv. split; [symmetry; exact Hv | reflexivity].
Qed.

(* decoding shortens, by a factor of at most 3: the two bounds of PercentDecode::size_hint *)
Lemma decode_length_bounds n : forall bs, (length bs <= n)%nat ->
  (length (decode bs) <= length bs)%nat /\ (length bs <= 3 * length (decode bs))%nat.
Proof.
  intros bs _. induction bs as [|h l r v E IH|b r Hb IH] using decode_ind.
  - cbn. lia.
  - rewrite decode_pct3, E. cbn [length]. lia.
  - rewrite (decode_plain b r Hb). cbn [length]. lia.
Qed.

Theorem pd_size_hint_ok bs :
  let n := N.of_nat (length (decode bs)) in
  fst (pd_size_hint bs) <= n /\ match snd (pd_size_hint bs) with Some hi => n <= hi | None => True end.
Proof.
  cbv zeta. destruct (decode_length_bounds (length bs) bs ltac:(lia)) as [H1 H2].
  unfold pd_size_hint. cbn [fst snd]. split; lia.
Qed.

Lemma if_any_aux_plain pre b r : plain_head b r -> if_any_aux pre (b :: r) = if_any_aux (b :: pre) r.
Proof.
  intros H. cbn [if_any_aux]. destruct (b =? 37) eqn:E; [|reflexivity].
  destruct H as [H|H]; [lia|]. destruct r as [|h [|l r]]; try reflexivity. rewrite H. reflexivity.
Qed.

(* if_any finds the first escape that decodes, if there is one; then the output is shorter *)
Lemma if_any_aux_spec bs : forall pre,
  match if_any_aux pre bs with
  | Some v => v = rev pre ++ decode bs /\ (length (decode bs) < length bs)%nat
  | None => decode bs = bs
  end.
Proof.
  induction bs as [|h l r v E _|b r Hb IH] using decode_ind; intros pre.
  - reflexivity.
  - cbn [if_any_aux]. change (37 =? 37) with true. cbv iota. rewrite decode_pct3, E.
    split; [reflexivity|]. destruct (decode_length_bounds _ r (le_n _)). cbn [length]. lia.
  - rewrite (if_any_aux_plain pre b r Hb), (decode_plain b r Hb). specialize (IH (b :: pre)).
    destruct (if_any_aux (b :: pre) r) as [v|].
    + destruct IH as [I1 I2]. split; [|cbn [length]; lia].
      rewrite I1. cbn [rev]. rewrite <- app_assoc. reflexivity.
    + rewrite IH. reflexivity.
Qed.

Theorem pd_cow_value bs : snd (pd_cow bs) = decode bs.
Proof.
  unfold pd_cow, if_any. pose proof (if_any_aux_spec bs []) as H.
  destruct (if_any_aux [] bs) as [v|]; cbn [snd].
  - destruct H as [H _]. exact H.
  - symmetry. exact H.
Qed.

Theorem pd_cow_borrow_iff bs : fst (pd_cow bs) = BorrowedInput <-> decode bs = bs.
Proof.
  unfold pd_cow, if_any. pose proof (if_any_aux_spec bs []) as H.
  destruct (if_any_aux [] bs) as [v|]; cbn [fst].
  - destruct H as [_ H]. split; [discriminate|]. intros E. rewrite E in H. lia.
  - tauto.
Qed.
