(* Proofs/C05_Setters.v - every mutator of Model/Setters.v preserves "all bytes of the serialization
   satisfy P" (P holds on 0x20..0x7E here: set_path on an opaque path re-enters the opaque-path state);
   the induction over histories is in Proofs/C05_History.v. *)
From RU Require Import Base.Prelude Base.Utf8 Model.AsciiSet Gen.Tables Model.PercentEncoding
  Model.HostT Model.UrlRecord Model.Parser Model.Setters Proofs.ListN Proofs.C05_Enc Proofs.C05_Parser.

Lemma bindo_some {A B} (x : option A) (f : A -> option B) b :
  bindo x f = Some b -> exists a, x = Some a /\ f a = Some b.
Proof. destruct x; cbn [bindo]; intros H; [eauto | discriminate]. Qed.

Ltac ob H a Ha := apply bindo_some in H; destruct H as (a & Ha & H).

Definition is_ip (h : host) : Prop := match h with HDomain _ => False | _ => True end.
(* Url::set_ip_host takes an address from the caller, not from a host parser *)
Definition IpOK (hd : host -> list N) : Prop := forall h, is_ip h -> Forall ok_byte (hd h).

Section Setters.
Variable P : N -> Prop.
Hypothesis P_ok : forall b, ok_byte b -> P b.
Hypothesis P_32 : P 32.
Variable dbg : bool.
Variable host_parse host_parse_opaque : list N -> result host.
Variable host_display : host -> list N.
Hypothesis HOK : HostOK host_parse host_parse_opaque host_display.
Notation okl := (okl P).
Notation origin := (host_origin host_parse host_parse_opaque).
Notation oku u := (okl (ser u)).

Lemma u_slice_from_okl u a s : u_slice_from u a = Some s -> oku u -> okl s.
Proof. unfold u_slice_from. apply okl_slice_from_o. Qed.
Lemma u_slice_okl u a b s : u_slice u a b = Some s -> oku u -> okl s.
Proof. unfold u_slice. apply okl_slice_o. Qed.

Lemma strip_trailing_okl u u' : strip_trailing_spaces_from_opaque_path u = Some u' -> oku u -> oku u'.
Proof.
  unfold strip_trailing_spaces_from_opaque_path. intros H Hs. ob H cbb Hc.
  destruct (negb cbb); [inversion H; subst; exact Hs|].
  destruct (fragment_start u); [inversion H; subst; exact Hs|].
  destruct (query_start u); inversion H; subst; [exact Hs|]. cbn [ser set_ser]. okt P_ok.
Qed.

Lemma set_fragment_okl u f u' : set_fragment dbg u f = Some u' -> oku u -> oku u'.
Proof.
  unfold set_fragment. intros H Hs. ob H s0 Hs0.
  assert (okl s0) as H0.
  { destruct (fragment_start u).
    - ob Hs0 x Hx. inversion Hs0; subst. okt P_ok.
    - inversion Hs0; subst. exact Hs. }
  destruct f as [input|].
  - inversion H; subst. cbn [ser set_ser set_fragment_start]. apply (parse_fragment_okl _ P_ok). okt P_ok.
  - eapply strip_trailing_okl; [exact H|]. cbn [ser set_ser set_fragment_start]. exact H0.
Qed.

Lemma take_fragment_okl u u1 frag : take_fragment dbg u = Some (u1, frag) -> oku u ->
  oku u1 /\ match frag with Some f => okl f | None => True end.
Proof.
  unfold take_fragment. intros H Hs. destruct (fragment_start u).
  - ob H x Hx. ob H f Hf. inversion H; subst. cbn [ser set_ser set_fragment_start]. split; [okt P_ok|].
    eapply u_slice_from_okl; eassumption.
  - inversion H; subst. split; [exact Hs | exact I].
Qed.

Lemma restore_fragment_okl u frag u' : restore_already_parsed_fragment u frag = Some u' ->
  oku u -> match frag with Some f => okl f | None => True end -> oku u'.
Proof.
  unfold restore_already_parsed_fragment. intros H Hs Hf. destruct frag as [f|]; [|inversion H; subst; exact Hs].
  ob H x Hx. inversion H; subst. cbn [ser set_ser set_fragment_start]. okt P_ok.
Qed.

Lemma set_query_okl u q u' : set_query dbg u q = Some u' -> oku u -> oku u'.
Proof.
  unfold set_query. intros H Hs. ob H a Ha. destruct a as [u1 frag].
  destruct (take_fragment_okl _ _ _ Ha Hs) as [H1 Hf].
  ob H u2 Hu2. ob H u3 Hu3.
  assert (oku u2) as H2.
  { destruct (query_start u1).
    - ob Hu2 x Hx. inversion Hu2; subst. cbn [ser set_ser set_query_start]. okt P_ok.
    - inversion Hu2; subst. exact H1. }
  eapply restore_fragment_okl; [exact H | | exact Hf].
  destruct q as [input|].
  - ob Hu3 st Hst.
    pose proof (parse_query_okl _ P_ok None CSetter st (scheme_end u2) (ser u2 ++ [63]) (input_new_trim_tnl input)
                  ltac:(okt P_ok)) as Hq.
    destruct (parse_query None CSetter st (scheme_end u2) (ser u2 ++ [63]) (input_new_trim_tnl input)) as [s r].
    inversion Hu3; subst. cbn [ser set_ser set_query_start]. exact Hq.
  - destruct frag; [inversion Hu3; subst; exact H2 | eapply strip_trailing_okl; eassumption].
Qed.

Lemma take_after_path_okl u u1 ap : take_after_path u = Some (u1, ap) -> oku u -> oku u1 /\ okl ap.
Proof.
  unfold take_after_path. intros H Hs.
  destruct (query_start u) as [i|]; [|destruct (fragment_start u) as [i|]].
  3:{ inversion H; subst. split; [exact Hs | constructor]. }
  all: ob H a Ha; inversion H; subst; cbn [ser set_ser]; split; [okt P_ok | eapply u_slice_from_okl; eassumption].
Qed.

Lemma restore_after_path_okl u op ap u' : restore_after_path dbg u op ap = Some u' -> oku u -> okl ap -> oku u'.
Proof.
  unfold restore_after_path. intros H Hs Ha. cbv zeta in H. ob H qs Hq. ob H fs Hf. inversion H; subst.
  cbn [ser set_ser set_query_start set_fragment_start]. okt P_ok.
Qed.

Lemma unpres_some {A} (r : pres A) a : unpres r = Some a -> r = POk a.
Proof. destruct r; cbn; intros H; [inversion H; reflexivity | discriminate | discriminate]. Qed.

Lemma set_path_okl u p u' : set_path dbg u p = Some u' -> oku u -> oku u'.
Proof.
  unfold set_path. intros H Hs. ob H a Ha. destruct a as [u1 ap].
  destruct (take_after_path_okl _ _ _ Ha Hs) as [H1 Hap]. cbv zeta in H.
  ob H cbb Hcbb. ob H st Hst. ob H s1 Hs1.
  eapply restore_after_path_okl; [exact H | | exact Hap]. cbn [ser set_ser].
  assert (okl (truncate (ser u1) (path_start u1))) as H0 by okt P_ok.
  destruct cbb.
  - assert (forall s p', okl s -> okl (fst (parse_cannot_be_a_base_path CSetter s p'))) as Hc.
    { intros s p' Hx. apply (parse_cannot_be_a_base_path_okl _ P_ok); assumption. }
    match type of Hs1 with context [match ?m with Some r => @?a r | None => ?b end] =>
      destruct (match m with Some r => a r | None => b end) as [s p'] eqn:Ep end.
    assert (okl s) as Hs2.
    { destruct (inp_split_prefix_char 47 (input_new_no_trim p)); inversion Ep; subst; [okt P_ok | exact H0]. }
    injection Hs1 as Hx. rewrite <- Hx. apply Hc. exact Hs2.
  - ob Hs1 b Hb. destruct b as [[s hh] rem]. inversion Hs1; subst.
    apply unpres_some in Hb. eapply parse_path_start_okl; [exact P_ok | exact Hb | exact H0].
Qed.

Lemma set_port_internal_okl u p u' : set_port_internal dbg u p = Some u' -> oku u -> oku u'.
Proof.
  unfold set_port_internal. intros H Hs.
  destruct (port u) as [old|]; destruct p as [new|].
  4:{ inversion H; subst. exact Hs. }
  2:{ ob H s Hs0. ob H rest Hr. ob H x Hx. cbv zeta in H. ob H qs Hq. ob H fs Hf. inversion H; subst. cbn [ser].
      apply okl_app; [eapply okl_slice_o; eassumption | eapply u_slice_from_okl; eassumption]. }
  - destruct (old =? new); [inversion H; subst; exact Hs|].
    ob H pa Hpa. cbv zeta in H. ob H qs Hq. ob H fs Hf. inversion H; subst. cbn [ser].
    apply okl_app; [okt P_ok | eapply u_slice_from_okl; eassumption].
  - ob H pa Hpa. cbv zeta in H. ob H qs Hq. ob H fs Hf. inversion H; subst. cbn [ser].
    apply okl_app; [okt P_ok | eapply u_slice_from_okl; eassumption].
Qed.

Lemma set_port_okl u p u' st : set_port dbg u p = Some (u', st) -> oku u -> oku u'.
Proof.
  unfold set_port. intros H Hs. ob H c Hc. destruct c; [inversion H; subst; exact Hs|].
  ob H s Hsch. cbv zeta in H. ob H u1 Hu1. inversion H; subst. eapply set_port_internal_okl; eassumption.
Qed.

Lemma set_host_internal_okl u h onp u' : okl (host_display h) ->
  set_host_internal dbg host_display u h onp = Some u' -> oku u -> oku u'.
Proof.
  unfold set_host_internal. intros Hh H Hs. cbv zeta in H. ob H suffix Hsuf.
  apply u_slice_from_okl in Hsuf; [|exact Hs].
  ob H ha Hha. ob H a Ha. destruct a as [[s1 ue] hs].
  assert (okl s1) as H1.
  { destruct (negb ha).
    - ob Ha x Hx. inversion Ha; subst. okt P_ok.
    - inversion Ha; subst. okt P_ok. }
  destruct onp as [np|].
  - destruct np as [p|]; cbv beta iota zeta in H; ob H ps Hps; ob H qs Hq; ob H fs Hf; inversion H; subst; cbn [ser]; okt P_ok.
  - cbv beta iota zeta in H. ob H ps Hps. ob H qs Hq. ob H fs Hf. inversion H; subst. cbn [ser]. okt P_ok.
Qed.

Lemma origin_okl h : origin h -> okl (host_display h).
Proof. intros H. apply (okl_ok _ P_ok), HOK. exact H. Qed.

Lemma set_host_okl u h u' st :
  set_host dbg host_parse host_parse_opaque host_display u h = Some (u', st) -> oku u -> oku u'.
Proof.
  unfold set_host. intros H Hs. ob H cbb Hcbb. destruct cbb; [inversion H; subst; exact Hs|].
  ob H sty Hsty. destruct h as [hs|].
  - destruct ((match hs with [] => true | _ => false end) && st_is_special sty && negb (st_is_file sty));
      [inversion H; subst; exact Hs|]. cbv zeta in H.
    match type of H with context [if ?c then Some hs else ?e] => destruct (if c then Some hs else e) as [hsub|] end;
      [|inversion H; subst; exact Hs].
    destruct (if st_is_special sty then host_parse hsub else host_parse_opaque hsub) as [host|e] eqn:Eh;
      [|inversion H; subst; exact Hs].
    ob H u1 Hu1. inversion H; subst. eapply set_host_internal_okl; [|exact Hu1 | exact Hs].
    apply origin_okl. destruct (st_is_special sty); [right; left | right; right]; eexists; exact Eh.
  - destruct (has_host u); [|inversion H; subst; exact Hs].
    destruct (st_is_special sty && negb (st_is_file sty)); [inversion H; subst; exact Hs|]. cbv zeta in H.
    ob H x Hx. ob H y Hy. ob H z Hz. ob H qs Hq. ob H fs Hf. inversion H; subst. cbn [ser]. okt P_ok.
Qed.

Lemma set_ip_host_okl u h u' st : okl (host_display h) ->
  set_ip_host dbg host_display u h = Some (u', st) -> oku u -> oku u'.
Proof.
  unfold set_ip_host. intros Hh H Hs. ob H cbb Hcbb. destruct cbb; [inversion H; subst; exact Hs|].
  ob H u1 Hu1. inversion H; subst. eapply set_host_internal_okl; eassumption.
Qed.

Lemma set_password_okl u pw u' st : set_password dbg u pw = Some (u', st) -> oku u -> oku u'.
Proof.
  unfold set_password. intros H Hs. ob H c Hc. destruct c; [inversion H; subst; exact Hs|]. cbv zeta in H.
  destruct (match pw with Some x => x | None => [] end) as [|x r].
  - ob H c Hc2. destruct c; [|inversion H; subst; exact Hs].
    ob H at_ Hat. ob H y Hy. ob H z Hz. ob H hs Hhs. ob H he Hhe. ob H ps Hps. ob H qs Hq. ob H fs Hf.
    inversion H; subst. cbn [ser]. okt P_ok.
  - ob H haa Hhaa. apply u_slice_from_okl in Hhaa; [|exact Hs].
    ob H he Hhe. ob H ps Hps. ob H qs Hq. ob H fs Hf. inversion H; subst. cbn [ser].
    apply okl_app; [|exact Hhaa]. apply okl_app; [|okt P_ok].
    apply push_encoded_okl; [exact P_ok | apply T_USERINFO_ctl | okt P_ok].
Qed.

Lemma set_username_okl u un u' st : set_username dbg u un = Some (u', st) -> oku u -> oku u'.
Proof.
  unfold set_username. intros H Hs. ob H c Hc. destruct c; [inversion H; subst; exact Hs|]. cbv zeta in H.
  ob H x Hx. ob H cur Hcur. destruct (list_eqb cur (utf8_encode un)); [inversion H; subst; exact Hs|].
  ob H au Hau. apply u_slice_from_okl in Hau; [|exact Hs].
  assert (okl (push_encoded T_USERINFO (truncate (ser u) (scheme_end u + 3)) un)) as H1.
  { apply push_encoded_okl; [exact P_ok | apply T_USERINFO_ctl | okt P_ok]. }
  set (s := push_encoded T_USERINFO (truncate (ser u) (scheme_end u + 3)) un) in *.
  match type of H with context [match nlen s =? scheme_end u + 3 with true => ?a | false => ?b end] =>
    destruct (match nlen s =? scheme_end u + 3 with true => a | false => b end) as [[s' removed] added] eqn:E end.
  assert (okl s') as H2.
  { destruct (nlen s =? scheme_end u + 3); destruct au as [|y rest]; try (inversion E; subst; okt P_ok).
    - destruct (y =? 64) eqn:E64.
      + apply N.eqb_eq in E64. subst y. inversion E; subst. inversion Hau; subst. okt P_ok.
      + assert (s' = s ++ y :: rest) as ->.
        { destruct y as [|p]; [inversion E; reflexivity|].
          do 7 (destruct p as [p|p|]; try (inversion E; reflexivity)); discriminate. }
        okt P_ok.
    - assert (s' = s ++ y :: rest \/ s' = s ++ [64] ++ y :: rest) as [-> | ->].
      { destruct y as [|p]; [right; inversion E; reflexivity|].
        do 7 (destruct p as [p|p|]; try (right; inversion E; reflexivity); try (left; inversion E; reflexivity)). }
      + okt P_ok.
      + inversion Hau; subst. okt P_ok. }
  ob H hs Hhs. ob H he Hhe. ob H ps Hps. ob H qs Hq. ob H fs Hf. inversion H; subst. cbn [ser]. exact H2.
Qed.

Lemma set_scheme_okl u sch u' st : set_scheme dbg u sch = Some (u', st) -> oku u -> oku u'.
Proof.
  unfold set_scheme. intros H Hs.
  destruct (parse_scheme CSetter (input_new_no_trim sch)) as [[ns rem]|] eqn:Esch; [|inversion H; subst; exact Hs].
  cbv zeta in H. ob H ost Host. ob H ha Hha.
  match type of H with (if ?c then _ else _) = _ => destruct c end; [inversion H; subst; exact Hs|].
  match type of H with (if ?c then _ else _) = _ => destruct c end; [inversion H; subst; exact Hs|].
  ob H ue Hue. ob H hs Hhs. ob H he Hhe. ob H ps Hps. ob H qs Hq. ob H fs Hf. ob H rest Hrest.
  ob H r Hr. destruct r as [u2 st2]. cbn [fst] in H. inversion H; subst.
  eapply set_port_okl; [exact Hr|]. cbn [ser].
  apply okl_app; [apply (okl_ok _ P_ok); eapply parse_scheme_ok; exact Esch | eapply u_slice_from_okl; eassumption].
Qed.

Definition okp (p : psm) : Prop := oku (psm_url p) /\ okl (psm_after_path p).

Lemma psm_new_okl u p : psm_new dbg u = Some p -> oku u -> okp p.
Proof.
  unfold psm_new. intros H Hs. ob H a Ha. destruct a as [u1 ap].
  destruct (take_after_path_okl _ _ _ Ha Hs) as [H1 Hap]. cbv zeta in H.
  ob H st Hst. ob H x Hx. inversion H; subst. split; assumption.
Qed.

Lemma psm_with_okp p s : okp p -> okl s -> okp (psm_with p s).
Proof. intros [H1 H2] Hs. split; [exact Hs | exact H2]. Qed.

Lemma psm_clear_okp p : okp p -> okp (psm_clear p).
Proof. intros H. unfold psm_clear. apply psm_with_okp; [exact H|]. destruct H. okt P_ok. Qed.

Lemma psm_pop_if_empty_okp p : okp p -> okp (psm_pop_if_empty p).
Proof.
  intros H. unfold psm_pop_if_empty. cbv zeta. destruct (nlen (ser (psm_url p)) <=? after_first_slash p); [exact H|].
  destruct (ends_with_byte 47 (nskipn (after_first_slash p) (ser (psm_url p)))); [|exact H].
  apply psm_with_okp; [exact H|]. destruct H. okt P_ok.
Qed.

Lemma psm_pop_okp p : okp p -> okp (psm_pop p).
Proof.
  intros H. unfold psm_pop. cbv zeta. destruct (nlen (ser (psm_url p)) <=? after_first_slash p); [exact H|].
  apply psm_with_okp; [exact H|]. destruct H. okt P_ok.
Qed.

Lemma psm_extend_loop_okl st ps segs : forall s s', psm_extend_loop dbg st ps s segs = Some s' -> okl s -> okl s'.
Proof.
  induction segs as [|seg rest IH]; intros s s' H Hs; cbn [psm_extend_loop] in H; [inversion H; subst; exact Hs|].
  destruct (psm_skips seg); [eapply IH; eassumption|]. cbv zeta in H.
  ob H a Ha. destruct a as [[s2 hh] rem]. apply unpres_some in Ha.
  eapply IH; [exact H|]. eapply parse_path_okl; [exact P_ok | exact Ha|]. okt P_ok.
Qed.

Lemma psm_extend_okp p segs p' : psm_extend dbg p segs = Some p' -> okp p -> okp p'.
Proof.
  unfold psm_extend. intros H Hp. ob H st Hst. ob H s Hs. inversion H; subst.
  apply psm_with_okp; [exact Hp|]. eapply psm_extend_loop_okl; [exact Hs|]. destruct Hp; assumption.
Qed.

Lemma psm_apply_okp p o p' : psm_apply dbg p o = Some p' -> okp p -> okp p'.
Proof.
  destruct o; cbn [psm_apply]; intros H Hp.
  - inversion H; subst. apply psm_clear_okp; exact Hp.
  - inversion H; subst. apply psm_pop_if_empty_okp; exact Hp.
  - inversion H; subst. apply psm_pop_okp; exact Hp.
  - unfold psm_push in H. eapply psm_extend_okp; eassumption.
  - eapply psm_extend_okp; eassumption.
Qed.

Lemma psm_run_okp ops : forall p p', psm_run dbg p ops = Some p' -> okp p -> okp p'.
Proof.
  induction ops as [|o r IH]; intros p p' H Hp; cbn [psm_run] in H; [inversion H; subst; exact Hp|].
  ob H p1 Hp1. eapply IH; [exact H|]. eapply psm_apply_okp; eassumption.
Qed.

Lemma path_segments_session_okl u ops u' st : path_segments_session dbg u ops = Some (u', st) -> oku u -> oku u'.
Proof.
  unfold path_segments_session, path_segments_mut. intros H Hs. ob H op Hop. ob Hop cbb Hcbb.
  destruct cbb; [inversion Hop; subst; inversion H; subst; exact Hs|].
  ob Hop p Hp. inversion Hop; subst. ob H p' Hp'. ob H u1 Hu1. inversion H; subst.
  apply psm_new_okl in Hp; [|exact Hs]. apply psm_run_okp in Hp'; [|exact Hp]. destruct Hp' as [H1 H2].
  unfold psm_close in Hu1. eapply restore_after_path_okl; eassumption.
Qed.

Lemma q_set_protocol_okl u v u' st : q_set_protocol dbg u v = Some (u', st) -> oku u -> oku u'.
Proof. unfold q_set_protocol. cbv zeta. apply set_scheme_okl. Qed.
Lemma q_set_username_okl u v u' st : q_set_username dbg u v = Some (u', st) -> oku u -> oku u'.
Proof. apply set_username_okl. Qed.
Lemma q_set_password_okl u v u' st : q_set_password dbg u v = Some (u', st) -> oku u -> oku u'.
Proof. apply set_password_okl. Qed.

Lemma pres_ok_some {A} (r : pres A) a : pres_ok r = Some (Some a) -> r = POk a.
Proof. destruct r; cbn; intros H; [inversion H; reflexivity | discriminate | discriminate]. Qed.

Lemma empty_host_okl : okl (host_display (HDomain [])).
Proof. apply origin_okl. left. reflexivity. Qed.

Lemma q_set_host_okl u v u' st :
  q_set_host dbg host_parse host_parse_opaque host_display u v = Some (u', st) -> oku u -> oku u'.
Proof.
  unfold q_set_host. intros H Hs. ob H cbb Hcbb. destruct cbb; [inversion H; subst; exact Hs|].
  ob H sc Hsc. cbv zeta in H.
  destruct (scheme_type_eqb (scheme_type_of sc) STFile && match v with [] => true | _ => false end).
  { ob H u1 Hu1. inversion H; subst. eapply set_host_internal_okl; [apply empty_host_okl | exact Hu1 | exact Hs]. }
  ob H r Hr. destruct r as [[h remaining]|]; [|inversion H; subst; exact Hs].
  apply pres_ok_some, parse_host_origin in Hr.
  ob H op Hop. ob H un Hun.
  match type of H with (if ?c then _ else _) = _ => destruct c end; [inversion H; subst; exact Hs|].
  ob H u1 Hu1. inversion H; subst. eapply set_host_internal_okl; [apply origin_okl; exact Hr | exact Hu1 | exact Hs].
Qed.

Lemma q_set_hostname_okl u v u' st :
  q_set_hostname dbg host_parse host_parse_opaque host_display u v = Some (u', st) -> oku u -> oku u'.
Proof.
  unfold q_set_hostname. intros H Hs. ob H cbb Hcbb. destruct cbb; [inversion H; subst; exact Hs|].
  ob H sc Hsc. cbv zeta in H.
  destruct (scheme_type_eqb (scheme_type_of sc) STFile && match v with [] => true | _ => false end).
  { ob H u1 Hu1. inversion H; subst. eapply set_host_internal_okl; [apply empty_host_okl | exact Hu1 | exact Hs]. }
  ob H r Hr. destruct r as [[h remaining]|]; [|inversion H; subst; exact Hs].
  apply pres_ok_some, parse_host_origin in Hr.
  ob H reject Hrej. destruct reject; [inversion H; subst; exact Hs|].
  ob H u1 Hu1. inversion H; subst. eapply set_host_internal_okl; [apply origin_okl; exact Hr | exact Hu1 | exact Hs].
Qed.

Lemma q_set_port_okl u v u' st : q_set_port dbg u v = Some (u', st) -> oku u -> oku u'.
Proof.
  unfold q_set_port. intros H Hs. ob H c Hc. destruct c; [inversion H; subst; exact Hs|].
  ob H sc Hsc. destruct (parse_port CSetter (default_port sc) (input_new_no_trim v)) as [[p r]| |]; [| |discriminate].
  - ob H u1 Hu1. inversion H; subst. eapply set_port_internal_okl; eassumption.
  - inversion H; subst. exact Hs.
Qed.

Lemma q_set_pathname_okl u v u' : q_set_pathname dbg u v = Some u' -> oku u -> oku u'.
Proof.
  unfold q_set_pathname. intros H Hs. ob H cbb Hcbb. destruct cbb; [inversion H; subst; exact Hs|].
  ob H st Hst.
  match type of H with (if ?c then _ else _) = _ => destruct c end; [eapply set_path_okl; eassumption|].
  match type of H with (if ?c then _ else _) = _ => destruct c end; eapply set_path_okl; eassumption.
Qed.

Lemma q_set_search_okl u v u' : q_set_search dbg u v = Some u' -> oku u -> oku u'.
Proof. unfold q_set_search. apply set_query_okl. Qed.
Lemma q_set_hash_okl u v u' : q_set_hash dbg u v = Some u' -> oku u -> oku u'.
Proof. unfold q_set_hash. apply set_fragment_okl. Qed.

End Setters.
