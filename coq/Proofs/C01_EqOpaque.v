(* Proofs/C01_EqOpaque.v - C01 equivalence, first full class: absolute URLs with a non-special
   scheme whose text after "scheme:" does not start with '/', no base (opaque path, then optional
   query and fragment).  For every input of the class (any scalar values, tab / LF / CR anywhere,
   leading / trailing C0-or-space) the model of parser.rs and the specification model of the
   Standard produce the same ten API strings. *)
From RU Require Import Base.Prelude Gen.Tables Model.HostT Model.UrlRecord Model.Parser Model.Setters Model.WF
  Spec.Whatwg Proofs.ListN Proofs.C02_Enc Proofs.C02_Parts Proofs.C02_Opaque Proofs.C03_WF Proofs.C01_Tables
  Proofs.C08_Input Proofs.C01_EqRun Proofs.C01_EqEnc Proofs.C01_EqApi.

(* the ten strings of the canonical opaque record *)
Definition spec_opaque_url (sch P : list N) (q f : option (list N)) : spec_url :=
  mkSUrl sch [] [] None None (SPOpaque P) q f.

Lemma q_trim_qtext q : q_trim (qf_qtext q) = match q with None | Some [] => [] | Some x => 63 :: x end.
Proof. destruct q as [[|a r]|]; reflexivity. Qed.
Lemma q_trim_ftext f : q_trim (qf_ftext f) = match f with None | Some [] => [] | Some x => 35 :: x end.
Proof. destruct f as [[|a r]|]; reflexivity. Qed.

Lemma opaque_no_authority sch P q f : opaque_ok sch P q f -> has_authority_b (opaque_url sch P q f) = false.
Proof.
  intros K. destruct K.
  assert (starts_with [47] (P ++ qf_text q f) = false) as Hno.
  { destruct P as [|c r]; [|cbn [app starts_with] in *; rewrite ok_Ph; reflexivity].
    cbn [app]. unfold qf_text. destruct q; destruct f; reflexivity. }
  unfold has_authority_b, opaque_url. cbn [ser scheme_end]. unfold opaque_ser, opaque_pre.
  rewrite <- !app_assoc. rewrite nskipn_app_len. unfold s_css. cbn [app starts_with].
  replace (58 =? 58) with true by reflexivity. cbn [andb].
  apply starts_with_ss_of_s. exact Hno.
Qed.

Theorem api_opaque dbg shs sch P q f : opaque_ok sch P q f ->
  api_of_model dbg (opaque_url sch P q f) = Some (spec_api_list shs (spec_opaque_url sch P q f)).
Proof.
  intros K. pose proof (opaque_url_wf _ _ _ _ K) as W. pose proof (opaque_no_authority _ _ _ _ K) as Hna.
  rewrite (api_of_model_eval dbg _ W). f_equal.
  unfold has_password_b. cbn [pidx]. rewrite Hna. cbn [andb].
  set (A := sch ++ [58]).
  assert (nlen A = nlen sch + 1) as EA by (unfold A; rewrite nlen_app; reflexivity).
  unfold piece, opaque_url.
  cbn [pidx ser scheme_end username_end host_start host_end hosti port path_start query_start
       fragment_start has_host].
  fold A.
  unfold spec_api_list, get_href, get_protocol, get_username, get_password, get_host, get_hostname,
    get_port, get_pathname, get_search, get_hash, serialize_url, serialize_path, serialize_host_opt,
    spec_opaque_url.
  cbn [su_scheme su_username su_password su_host su_port su_path su_query su_fragment].
  rewrite <- EA, !N.sub_diag.
  change (nfirstn 0 ?x) with (@nil N).
  unfold opaque_ser, opaque_pre. fold A.
  (* AfterPath and AfterQuery *)
  assert (match qf_qs (nlen (A ++ P)) q with
          | Some x => x
          | None => match qf_fs (nlen (A ++ P)) q f with Some y => y | None => nlen ((A ++ P) ++ qf_text q f) end
          end = nlen (A ++ P)) as EAP.
  { destruct q as [x|]; [reflexivity|]. destruct f as [y|]; cbn [qf_qs qf_fs qf_qtext].
    - unfold nlen at 2. cbn [length]. lia.
    - unfold qf_text. cbn [qf_qtext qf_ftext app]. rewrite app_nil_r. reflexivity. }
  assert (match qf_fs (nlen (A ++ P)) q f with Some y => y | None => nlen ((A ++ P) ++ qf_text q f) end
          = nlen ((A ++ P) ++ qf_qtext q)) as EAQ.
  { destruct f as [y|]; cbn [qf_fs]; [symmetry; apply nlen_app|].
    unfold qf_text. cbn [qf_ftext]. rewrite app_nil_r. reflexivity. }
  rewrite EAP, EAQ.
  apply list10_eq; try reflexivity.
  - (* href *)
    unfold qf_text, qf_qtext, qf_ftext. unfold A. rewrite <- !app_assoc. cbn [app].
    destruct q; destruct f; reflexivity.
  - (* protocol *)
    rewrite <- !app_assoc. apply nfirstn_app_len.
  - (* pathname *)
    rewrite nlen_app. replace (nlen A + nlen P - nlen A) with (nlen P) by lia.
    rewrite <- !app_assoc. rewrite nskipn_app_len. apply nfirstn_app_len.
  - (* search *)
    rewrite (nlen_app (A ++ P)). replace (nlen (A ++ P) + nlen (qf_qtext q) - nlen (A ++ P)) with (nlen (qf_qtext q)) by lia.
    rewrite nskipn_app_len. unfold qf_text. rewrite nfirstn_app_len. apply q_trim_qtext.
  - (* hash *)
    unfold qf_text. rewrite app_assoc. rewrite nskipn_app_len. apply q_trim_ftext.
Qed.

(* the text after the scheme, as both sides cut it *)
Lemma before_hash_ntnl r : query_chars true r = before_hash (ntnl r).
Proof.
  induction r as [|c t IH]; [reflexivity|]. cbn [query_chars]. destruct (is_tnl c) eqn:Et.
  - rewrite ntnl_cons_tnl by exact Et. exact IH.
  - rewrite ntnl_cons by exact Et. cbn [before_hash]. rewrite andb_true_r. destruct (c =? 35); [reflexivity|].
    f_equal. exact IH.
Qed.

Lemma after_hash_ntnl r : option_map ntnl (query_rest true r) = after_hash (ntnl r).
Proof.
  induction r as [|c t IH]; [reflexivity|]. cbn [query_rest]. destruct (is_tnl c) eqn:Et.
  - rewrite ntnl_cons_tnl by exact Et. exact IH.
  - rewrite ntnl_cons by exact Et. cbn [after_hash]. rewrite andb_true_r. destruct (c =? 35); [reflexivity|]. exact IH.
Qed.

Lemma o_path_ntnl l : cbb_chars l = o_path (ntnl l).
Proof.
  induction l as [|c r IH]; [reflexivity|]. cbn [cbb_chars]. destruct (is_tnl c) eqn:Et.
  - rewrite ntnl_cons_tnl by exact Et. exact IH.
  - rewrite ntnl_cons by exact Et. cbn [o_path]. change (C02_Parts.is_qh c) with (is_qh c).
    destruct (is_qh c); [reflexivity|]. f_equal. exact IH.
Qed.

Lemma o_rest_ntnl l : ntnl (cbb_rest l) = o_rest (ntnl l).
Proof.
  induction l as [|c r IH]; [reflexivity|]. cbn [cbb_rest]. destruct (is_tnl c) eqn:Et.
  - rewrite ntnl_cons_tnl by exact Et. exact IH.
  - rewrite (ntnl_cons c r) by exact Et. cbn [o_rest]. change (C02_Parts.is_qh c) with (is_qh c).
    destruct (is_qh c); [rewrite ntnl_cons by exact Et; reflexivity | exact IH].
Qed.

(* the fragment / query texts of the model in the Standard's terms *)
Lemma frag_of_upe r : frag_of r = upe in_fragment_set (ntnl r).
Proof. unfold frag_of, upe. apply enc_bridge. exact rel_FRAGMENT. Qed.

Lemma query_of_upe st r :
  query_of st r = upe (if st_is_special st then in_special_query_set else in_query_set) (before_hash (ntnl r)).
Proof.
  unfold query_of, upe, query_set. rewrite before_hash_ntnl.
  destruct (st_is_special st); apply enc_bridge; [exact rel_SPECIAL_QUERY | exact rel_QUERY].
Qed.

(* what follows the path: the model's (query, fragment) pair is the Standard's tail *)
Lemma tail_url_st st u l :
  is_special u = st_is_special st -> su_query u = None -> su_fragment u = None ->
  match l with [] => True | c :: _ => C02_Parts.is_qh c = true /\ is_tnl c = false end ->
  tail_url u (ntnl l)
  = set_fragment (set_query u (pqf_q st l)) (pqf_f l).
Proof.
  intros Hsp Hq Hf Hh. unfold pqf_q, pqf_f.
  destruct l as [|c r].
  - cbn. destruct u; cbn in *. subst. reflexivity.
  - destruct Hh as [Hqh Ht]. rewrite inp_next_cons by exact Ht. rewrite ntnl_cons by exact Ht.
    cbn [tail_url]. destruct (c =? 63) eqn:E63.
    + assert ((c =? 35) = false) as E35 by lia. rewrite E35.
      unfold query_final, qset_of, is_special. cbn [su_scheme set_query app]. fold (is_special u). rewrite Hsp.
      rewrite query_of_upe. rewrite <- after_hash_ntnl.
      destruct (query_rest true r) as [r2|]; cbn [option_map frag_opt].
      * rewrite frag_of_upe. destruct u; reflexivity.
      * destruct u; cbn in *; subst; reflexivity.
    + unfold C02_Parts.is_qh in Hqh. rewrite E63 in Hqh. cbn [orb] in Hqh. rewrite Hqh.
      rewrite frag_of_upe. destruct u; cbn in *; subst; reflexivity.
Qed.

Section OpaqueClass.
Variable dbg : bool.
Variable hp hpo : list N -> result host.
Variable hd : host -> list N.
Variable ovr : option (list N -> list N).
Variable shp : bool -> list N -> option spec_host.
Variable shs : spec_host -> list N.

(* model side *)
Lemma pqf_total st se s l :
  match l with [] => True | c :: _ => C02_Parts.is_qh c = true /\ is_tnl c = false end ->
  parse_query_and_fragment ovr CUrlParser st se s l = PErr Overflow
  \/ exists r, parse_query_and_fragment ovr CUrlParser st se s l = POk r.
Proof.
  intros Hh. unfold parse_query_and_fragment. destruct l as [|c r]; [right; eexists; reflexivity|].
  destruct Hh as [Hq Ht]. rewrite inp_next_cons by exact Ht.
  unfold to_u32. destruct (nlen s <=? U32_MAX_P); cbn [pbind].
  2:{ destruct (c =? 35) eqn:E35; [left; reflexivity|]. destruct (c =? 63) eqn:E63; [left; reflexivity|].
      unfold C02_Parts.is_qh in Hq. rewrite E63, E35 in Hq. discriminate. }
  destruct (c =? 35) eqn:E35; [right; eexists; reflexivity|].
  destruct (c =? 63) eqn:E63.
  2:{ unfold C02_Parts.is_qh in Hq. rewrite E63, E35 in Hq. discriminate. }
  destruct (parse_query _ _ _ _ _ _) as [s1 [r2|]]; [|right; eexists; reflexivity].
  destruct (nlen s1 <=? U32_MAX_P); cbn [pbind]; [right; eexists; reflexivity | left; reflexivity].
Qed.

Theorem model_opaque input sch rem : usv_list input ->
  parse_scheme CUrlParser (input_new_trim_c0 input) = Some (sch, rem) ->
  scheme_type_of sch = STNotSpecial -> inp_split_prefix_char 47 rem = None ->
  parse_url dbg hp hpo hd ovr None input = PErr Overflow
  \/ (parse_url dbg hp hpo hd ovr None input
        = POk (opaque_url sch (opaque_of rem) (pqf_q STNotSpecial (cbb_rest rem)) (pqf_f (cbb_rest rem)))
      /\ opaque_ok sch (opaque_of rem) (pqf_q STNotSpecial (cbb_rest rem)) (pqf_f (cbb_rest rem))).
Proof.
  intros Hu Hs Hns H47.
  destruct (parse_url dbg hp hpo hd ovr None input) as [u|e|] eqn:E.
  - right.
    unfold parse_url in E. rewrite Hs in E. unfold parse_with_scheme in E. rewrite Hns in E.
    destruct (to_u32 (nlen sch)) as [se| |] eqn:Eu; cbn [pbind] in E; try discriminate.
    apply to_u32_inv in Eu. destruct Eu as [-> Hb0].
    destruct (parse_scheme_suffix _ _ _ _ Hs) as [pre Hpre].
    assert (usv_list rem) as Hur.
    { pose proof (usv_trim input Hu) as Ht. rewrite Hpre in Ht. apply usv_app in Ht. tauto. }
    rewrite pns_opaque_eval in E by assumption.
    destruct (to_u32 (nlen (sch ++ [58]))) as [ps| |] eqn:Eu; cbn [pbind] in E; try discriminate.
    apply to_u32_inv in Eu. destruct Eu as [-> Hb1].
    destruct (parse_query_and_fragment ovr CUrlParser STNotSpecial (nlen sch) (opaque_pre sch (opaque_of rem)) (cbb_rest rem))
      as [[[s2 qs] fs]| |] eqn:Eq; cbn [pbind] in E; try discriminate.
    apply pqf_out in Eq; [|apply usv_cbb_rest; exact Hur|].
    2:{ unfold opaque_pre. rewrite <- !app_assoc. rewrite nfirstn_app_len. apply query_enc_nonspecial. exact Hns. }
    destruct Eq as (-> & -> & -> & Bq & Bf & Cq & Cf).
    split; [rewrite <- E; reflexivity|].
    constructor; try assumption.
    + exact (parse_scheme_out _ _ _ Hs).
    + apply opaque_of_clean. exact Hur.
    + apply opaque_of_no_qh. exact Hur.
    + apply opaque_of_head; assumption.
    + intros Hq Hf. apply opaque_of_last; [exact Hur | |].
      * pose proof (cbb_rest_head rem) as Hh. unfold pqf_q, pqf_f in Hq, Hf.
        destruct (cbb_rest rem) as [|c r]; [reflexivity|]. destruct Hh as [Hh1 Hh2].
        rewrite inp_next_cons in Hq, Hf by exact Hh2. exfalso.
        unfold C02_Parts.is_qh in Hh1. destruct (c =? 63); [discriminate|]. destruct (c =? 35); discriminate.
      * pose proof (trim_c0_edge_ok input) as [_ He]. rewrite Hpre in He.
        exact (first_ok_rev_suffix _ _ He).
  - left. f_equal.
    unfold parse_url in E. rewrite Hs in E. unfold parse_with_scheme in E. rewrite Hns in E.
    unfold to_u32 in E at 1. destruct (nlen sch <=? U32_MAX_P); cbn [pbind] in E; [|inversion E; reflexivity].
    assert (usv_list rem) as Hur.
    { destruct (parse_scheme_suffix _ _ _ _ Hs) as [pre Hpre].
      pose proof (usv_trim input Hu) as Ht. rewrite Hpre in Ht. apply usv_app in Ht. tauto. }
    rewrite pns_opaque_eval in E by assumption.
    unfold to_u32 in E at 1. destruct (nlen (sch ++ [58]) <=? U32_MAX_P); cbn [pbind] in E; [|inversion E; reflexivity].
    destruct (pqf_total STNotSpecial (nlen sch) (opaque_pre sch (opaque_of rem)) (cbb_rest rem) (cbb_rest_head rem))
      as [K|[[[s2 qs] fs] K]]; rewrite K in E; cbn [pbind] in E; [inversion E; reflexivity | discriminate].
  - exfalso.
    unfold parse_url in E. rewrite Hs in E. unfold parse_with_scheme in E. rewrite Hns in E.
    unfold to_u32 in E at 1. destruct (nlen sch <=? U32_MAX_P); cbn [pbind] in E; [|discriminate].
    assert (usv_list rem) as Hur.
    { destruct (parse_scheme_suffix _ _ _ _ Hs) as [pre Hpre].
      pose proof (usv_trim input Hu) as Ht. rewrite Hpre in Ht. apply usv_app in Ht. tauto. }
    rewrite pns_opaque_eval in E by assumption.
    unfold to_u32 in E at 1. destruct (nlen (sch ++ [58]) <=? U32_MAX_P); cbn [pbind] in E; [|discriminate].
    destruct (pqf_total STNotSpecial (nlen sch) (opaque_pre sch (opaque_of rem)) (cbb_rest rem) (cbb_rest_head rem))
      as [K|[[[s2 qs] fs] K]]; rewrite K in E; cbn [pbind] in E; discriminate.
Qed.

(* specification side *)
Lemma starts_with_cp_of_split rem : inp_split_prefix_char 47 rem = None -> starts_with_cp 47 (ntnl rem) = false.
Proof.
  unfold inp_split_prefix_char. destruct (inp_next rem) as [[c r]|] eqn:En.
  - destruct (inp_next_ntnl rem c r En) as [-> _]. cbn [starts_with_cp]. destruct (c =? 47); [discriminate | reflexivity].
  - rewrite (inp_next_none_ntnl rem En). reflexivity.
Qed.

Theorem spec_opaque input sch rem :
  parse_scheme CUrlParser (input_new_trim_c0 input) = Some (sch, rem) ->
  scheme_type_of sch = STNotSpecial -> inp_split_prefix_char 47 rem = None ->
  spec_basic_url_parse shp input None
  = BDone (spec_opaque_url sch (opaque_of rem) (pqf_q STNotSpecial (cbb_rest rem)) (pqf_f (cbb_rest rem))).
Proof.
  intros Hs Hns H47. apply spec_parse_of_runs. rewrite spec_clean_is_ntnl_trim.
  set (inp := ntnl (input_new_trim_c0 input)).
  pose proof (scheme_state_some _ _ _ Hs) as Hss. fold inp in Hss.
  assert (is_special_scheme sch = false) as Hnsp.
  { rewrite <- special_schemes_are_the_standards, Hns. reflexivity. }
  destruct (runs_scheme shp inp None sch (ntnl rem)
              (BDone (spec_opaque_url sch (opaque_of rem) (pqf_q STNotSpecial (cbb_rest rem)) (pqf_f (cbb_rest rem)))) Hss)
    as (pre & Hin & K).
  apply K. clear K.
  apply (runs_scheme_colon_opaque shp inp None pre sch (ntnl rem) _ Hin Hnsp (starts_with_cp_of_split rem H47)).
  pose proof (runs_opaque_path shp inp None (ntnl rem) (pre ++ [58]) false false false
                (set_path (set_scheme empty_url sch) (SPOpaque [])) [] (snoc_split _ _ _ _ Hin) eq_refl) as HR.
  cbn [app] in HR.
  replace (spec_opaque_url sch (opaque_of rem) (pqf_q STNotSpecial (cbb_rest rem)) (pqf_f (cbb_rest rem)))
    with (tail_url (set_path (set_path (set_scheme empty_url sch) (SPOpaque []))
                             (SPOpaque (upe in_c0_control_set (o_path (ntnl rem))))) (o_rest (ntnl rem)));
    [exact HR|].
  rewrite <- o_rest_ntnl, <- o_path_ntnl.
  rewrite (tail_url_st STNotSpecial); [| | reflexivity | reflexivity | apply cbb_rest_head].
  - unfold opaque_of, spec_opaque_url, upe. rewrite (enc_bridge T_CONTROLS in_c0_control_set _ rel_CONTROLS).
    reflexivity.
  - unfold is_special. cbn [su_scheme set_path set_scheme empty_url]. exact Hnsp.
Qed.

Theorem eq_opaque input sch rem : usv_list input ->
  parse_scheme CUrlParser (input_new_trim_c0 input) = Some (sch, rem) ->
  scheme_type_of sch = STNotSpecial -> inp_split_prefix_char 47 rem = None ->
  exists su, spec_basic_url_parse shp input None = BDone su
    /\ (parse_url dbg hp hpo hd ovr None input = PErr Overflow
        \/ exists u, parse_url dbg hp hpo hd ovr None input = POk u
                     /\ api_of_model dbg u = Some (spec_api_list shs su)).
Proof.
  intros Hu Hs Hns H47. eexists. split; [exact (spec_opaque input sch rem Hs Hns H47)|].
  destruct (model_opaque input sch rem Hu Hs Hns H47) as [E|[E K]]; [left; exact E|].
  right. eexists. split; [exact E|]. apply api_opaque. exact K.
Qed.

End OpaqueClass.
