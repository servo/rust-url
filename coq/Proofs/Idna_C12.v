(* Proofs/Idna_C12.v - C12 on the fastest tier, and "accepted by ToASCII => no ToUnicode error". *)
From RU Require Import Base.Prelude Base.Utf8 Base.Utf8Facts Base.U32_c13 Gen.Tables Model.Punycode Model.Uts46
  Proofs.Idna_Sim Proofs.Idna_Api Proofs.Idna_Known Proofs.Idna_Hyp Proofs.Idna_SimRun.

Lemma utf8_encode_ascii (l : list N) : Forall (fun b => b < 128) l -> utf8_encode l = l.
Proof.
  induction 1 as [|b r Hb Hr IH]; [reflexivity|].
  unfold utf8_encode in *. cbn [flat_map]. rewrite IH. unfold utf8_encode1.
  replace (b <? 128) with true by lia. reflexivity.
Qed.
Lemma lower_or_dot_ascii d : Forall lower_or_dot d -> Forall (fun b => b < 128) d.
Proof. intros H. eapply Forall_impl; [|exact H]. unfold lower_or_dot, DOT. intros; lia. Qed.

Lemma c12_fast A cfg d deny hy p : bytes d -> fast_tier d d = None ->
  let a := d in let u := ui_text (to_unicode A cfg d deny hy) in
  to_ascii A cfg d deny hy DIgnore = Ok (true, a) /\
  to_unicode A cfg a deny hy = UI true u false /\
  to_ascii A cfg (utf8_encode u) deny hy DIgnore = Ok (true, a) /\
  to_unicode A cfg (utf8_encode u) deny hy = UI true u false /\
  to_ascii A cfg (utf8_encode (ui_text (to_user_interface A cfg d deny hy p))) deny hy DIgnore = Ok (true, a).
Proof.
  intros Hb H. cbv zeta. unfold to_unicode.
  rewrite !(to_ui_fast A cfg d deny hy _ H). cbn [ui_text].
  rewrite (utf8_encode_ascii d (lower_or_dot_ascii d (fast_tier_none d Hb d H))).
  rewrite !(to_ui_fast A cfg d deny hy _ H). rewrite (to_ascii_fast A cfg d deny hy H). repeat split.
Qed.

Lemma c12_accepted_no_error A cfg d deny hy b a bu t e : Redisc A cfg deny ->
  to_ascii A cfg d deny hy DIgnore = Ok (b, a) ->
  to_unicode A cfg d deny hy = UI bu t e -> e = false.
Proof.
  intros HR Ha Hu. destruct e; [|reflexivity].
  unfold to_unicode in Hu. rewrite (mark_err_ff_err A cfg d deny hy _ bu t HR Hu) in Ha. discriminate.
Qed.
