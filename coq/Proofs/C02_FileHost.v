(* Proofs/C02_FileHost.v - the host clause of C02_FileParse (host_no_wdl: the display of a parsed host is not a
   Windows drive letter) holds of the host model Model/Host.v for every IDNA function satisfying IdnaOK:
   a domain is free of forbidden domain code points, among them ':' and '|'; the display of an IPv4 address starts
   with a digit, that of an IPv6 address with '['. *)
From RU Require Import Base.Prelude Model.Host Model.Parser Proofs.C09_Host Proofs.C09_Inst Proofs.C02_FileL1
  Proofs.C02_FileParse.
From RU Require Spec.WhatwgHost.
Open Scope N_scope.
Open Scope list_scope.

Lemma is_wdl_head_not_alpha a X : is_alpha a = false -> is_wdl (a :: X) = false.
Proof.
  intros H. unfold is_wdl, starts_with_wdl. destruct X as [|b r]; [reflexivity|]. rewrite H. cbn [andb]. apply andb_false_r.
Qed.

Lemma digit_dot_not_alpha c : is_digit c = true \/ c = 46 -> is_alpha c = false.
Proof. unfold is_digit, is_alpha, is_upper, is_lower. lia. Qed.

Theorem host_no_wdl_model idna : IdnaOK idna -> host_no_wdl (host_parse idna) host_display.
Proof.
  intros OK s h H. pose proof (host_parse_ok_x _ _ _ H) as Hx.
  destruct (host_parse_x_shape idna s h OK Hx) as [Hs _].
  destruct h as [d|a|ps]; cbn [host_display].
  - destruct (is_wdl d) eqn:E; [|reflexivity]. exfalso.
    destruct (is_wdl_inv d E) as (a & b & -> & Ha).
    pose proof (domain_form idna OK s [a; b] Hx) as Hf.
    inversion Hf as [|? ? _ Hf']; subst. inversion Hf' as [|? ? (_ & _ & Hb) _]; subst.
    unfold is_wdl, starts_with_wdl in E. cbn [length Nat.eqb andb] in E. rewrite Ha in E. cbn [andb] in E.
    rewrite andb_true_r in E. apply orb_true_iff in E. destruct E as [E|E]; apply N.eqb_eq in E; subst b;
      vm_compute in Hb; discriminate Hb.
  - inversion Hs as [| |a0 Ha|]; subst. destruct (ipv4_display_digits a Ha) as (Hd & Hn & _).
    destruct (ipv4_display a) as [|c r]; [reflexivity|]. inversion Hd as [|? ? Hc _]; subst.
    apply is_wdl_head_not_alpha. apply digit_dot_not_alpha. exact Hc.
  - cbn [app]. apply is_wdl_head_not_alpha. reflexivity.
Qed.
