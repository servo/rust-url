(* Proofs/C05_ParseEx.v - C05_components_parse: the statement with HostOK as the only hypothesis on the host functions
   (C05_components_parse_statement) is false of the model for a
   host Display that no url::Host has; a concrete instance of the hypotheses of parse_url_cinv. *)
From Coq Require Import String.
From RU Require Import Base.Prelude Model.HostT Model.UrlRecord Model.Parser Model.WF
  Proofs.ListN Proofs.C06_Suffix Proofs.C02_Reach Proofs.C02_AuthMain Proofs.C04_ParseTotal
  Proofs.C03_ReachParts Proofs.C03_ReachHost
  Proofs.C05_Enc Proofs.C05_Parser Proofs.C05_Comp Proofs.C05_CompSteps Proofs.C05_ParseAll.
Open Scope N_scope.
Open Scope list_scope.

(* a Display that prints ":" for a domain satisfies HostOK (every byte inside 0x21..0x7E) ... *)
Lemma bad_host_ok : HostOK bad_hp bad_hp bad_hd.
Proof.
  intros h [->|[[s Hs]|[s Hs]]]; [constructor| |]; unfold bad_hp in Hs; inversion Hs; subst;
    repeat constructor; unfold ok_byte; lia.
Qed.

(* ... and the record parse_url returns for "a://x" with it is not well-formed *)
Lemma parse_statement_witness :
  exists u, parse_url true bad_hp bad_hp bad_hd None None (B "a://x") = POk u /\ ~ CInv true u.
Proof.
  destruct no_host_hypothesis_witness as (u & Hp & _ & Hw). exists u. split; [exact Hp|].
  intros [[W _] _]. rewrite W in Hw. discriminate.
Qed.

(* an instance: "http://u s:p@h.x/a/b?q" is a base with CInv and base_ok; joining "../c d?r" gives
   "http://u%20s:p@h.x/c%20d?r", again with CInv and base_ok *)
Definition parse_cinv_example_stmt : Prop :=
  exists b u, parse_url true ex_hp ex_hp ex_hd None None (B "http://u s:p@h.x/a/b?q") = POk b
    /\ CInv true b /\ base_ok b = true
    /\ parse_url true ex_hp ex_hp ex_hd None (Some b) (B "../c d?r") = POk u
    /\ CInv true u /\ base_ok u = true /\ ser u = B "http://u%20s:p@h.x/c%20d?r".

Lemma parse_cinv_example : parse_cinv_example_stmt.
Proof.
  unfold parse_cinv_example_stmt.
  destruct (parse_url true ex_hp ex_hp ex_hd None None (B "http://u s:p@h.x/a/b?q")) as [b| |] eqn:Eb;
    [|vm_compute in Eb; discriminate ..].
  destruct (parse_url true ex_hp ex_hp ex_hd None (Some b) (B "../c d?r")) as [u| |] eqn:Eu;
    [|vm_compute in Eb; inversion Eb; subst b; vm_compute in Eu; discriminate ..].
  exists b, u.
  assert (CInv true b) as Kb by exact (parse_url_cinv true true ex_hp ex_hp ex_hd None None _ b ex_host_wf I Eb).
  assert (base_ok b = true) as Bb by (vm_compute in Eb; inversion Eb; subst b; vm_compute; reflexivity).
  split; [reflexivity|]. split; [exact Kb|]. split; [exact Bb|]. split; [exact Eu|].
  split; [exact (parse_url_cinv true true ex_hp ex_hp ex_hd None (Some b) _ u ex_host_wf (conj Kb Bb) Eu)|].
  vm_compute in Eb. inversion Eb; subst b. vm_compute in Eu. inversion Eu; subst u. split; vm_compute; reflexivity.
Qed.

(* the gated reachability CReach of Proofs/C05_CompReach.v is inhabited, the steps that step_gate2 adds to step_gate included *)
From RU Require Import Model.Setters Proofs.C05_History Proofs.C05_CompHist Proofs.C06_Path Proofs.C06_Segments
  Proofs.C05_CompSteps2 Proofs.C05_CompReach.

(* parse "http://h.x/a/b?q"; path_segments_mut: pop, push "c d"; quirks set_pathname "/x y<z";
   set_hostname "o.x"; set_port "81"; join "../w v#f`"  *)
Definition creach_example_stmt : Prop :=
  HostWf ex_hp ex_hp ex_hd
  /\ exists u, CReach true ex_hp ex_hp ex_hd u /\ ser u = B "http://o.x:81/w%20v#f%60".

Lemma creach_example : creach_example_stmt.
Proof.
  split; [exact ex_host_wf|].
  destruct (parse_url true ex_hp ex_hp ex_hd None None (B "http://h.x/a/b?q")) as [u0| |] eqn:E0;
    [|vm_compute in E0; discriminate ..].
  pose proof (CR_parse true ex_hp ex_hp ex_hd None _ u0 E0) as R0. vm_compute in E0. injection E0 as <-.
  match type of R0 with CReach _ _ _ _ ?u =>
    destruct (apply_op true ex_hp ex_hp ex_hd u (OPathSegments [PPop; PPush (B "c d")])) as [u1|] eqn:E1;
      [|vm_compute in E1; discriminate] end.
  pose proof E1 as E1'. vm_compute in E1'. injection E1' as <-.
  match type of E1 with apply_op _ _ _ _ ?u ?o = Some ?u' =>
    assert (CReach true ex_hp ex_hp ex_hd u') as R1 end.
  { eapply CR_step; [exact R0 | | | exact E1]; [exact I|]. cbn [step_gate2]. split; [|exact I].
    repeat constructor; unfold is_usv; lia. }
  clear R0 E1.
  match type of R1 with CReach _ _ _ _ ?u =>
    destruct (apply_op true ex_hp ex_hp ex_hd u (OQPathname (B "/x y<z"))) as [u2|] eqn:E2;
      [|vm_compute in E2; discriminate] end.
  pose proof E2 as E2'. vm_compute in E2'. injection E2' as <-.
  match type of E2 with apply_op _ _ _ _ ?u ?o = Some ?u' =>
    assert (CReach true ex_hp ex_hp ex_hd u') as R2 end.
  { eapply CR_step; [exact R1 | | | exact E2]; [exact I|]. cbn [step_gate2].
    split; [repeat constructor; unfold is_usv; lia|]. split; [intros _ _; vm_compute; reflexivity | exact I]. }
  clear R1 E2.
  match type of R2 with CReach _ _ _ _ ?u =>
    destruct (apply_op true ex_hp ex_hp ex_hd u (OQHostname (B "o.x"))) as [u3|] eqn:E3;
      [|vm_compute in E3; discriminate] end.
  pose proof E3 as E3'. vm_compute in E3'. injection E3' as <-.
  match type of E3 with apply_op _ _ _ _ ?u ?o = Some ?u' =>
    assert (CReach true ex_hp ex_hp ex_hd u') as R3 end.
  { eapply CR_step; [exact R2 | | | exact E3]; [exact I|]. cbn [step_gate2]. split.
    - intros X. vm_compute in X. discriminate.
    - intros _ X. vm_compute in X. discriminate. }
  clear R2 E3.
  match type of R3 with CReach _ _ _ _ ?u =>
    destruct (apply_op true ex_hp ex_hp ex_hd u (OQPort (B "81"))) as [u4|] eqn:E4;
      [|vm_compute in E4; discriminate] end.
  pose proof E4 as E4'. vm_compute in E4'. injection E4' as <-.
  match type of E4 with apply_op _ _ _ _ ?u ?o = Some ?u' =>
    assert (CReach true ex_hp ex_hp ex_hd u') as R4 end.
  { eapply CR_step; [exact R3 | | | exact E4]; exact I. }
  clear R3 E4.
  match type of R4 with CReach _ _ _ _ ?b =>
    destruct (parse_url true ex_hp ex_hp ex_hd None (Some b) (B "../w v#f`")) as [u5| |] eqn:E5;
      [|vm_compute in E5; discriminate ..];
    assert (CReach true ex_hp ex_hp ex_hd u5) as R5
      by (eapply (CR_join true ex_hp ex_hp ex_hd None b); [exact R4 | vm_compute; reflexivity | exact E5])
  end.
  exists u5. split; [exact R5|]. vm_compute in E5. injection E5 as <-. vm_compute. reflexivity.
Qed.
