(* Proofs/C09_RunClean.v - a RESULT-level sufficient condition for the per-run premise run_clean of the C09_inst2_*
   theorems (Proofs/C09_LongRun.v): "the host text of the URL that came out is outside Known_C10_long".

   A run of the parser model calls Host::parse at most once, and the Display text of the host it got is stored
   unchanged as the host text [host_start, host_end) of the result - except in ONE place: for file URLs the path parser
   drops the host when the path starts with a Windows drive letter ("file://host/C:/x" -> "file:///C:/x"), so a file
   result without host says nothing about the host of the run (run_clean_file_refuted).

   A. abstract parsers hp1 (answers like hp2, or refuses), hp2: every successful run with hp2 whose result has a host
      text t with "hp2 s = Ok h, Display h = t  ==>  hp1 s = Ok h" is the same run with hp1.
   B. hp1 = Host::parse with the capped oracle, hp2 = Host::parse with the oracle itself: run_clean from the result.
   C. the same for the three mutators that call Host::parse (Url::set_host, quirks set_host / set_hostname). *)
From RU Require Import Base.Prelude Base.Utf8 Model.AsciiSet Gen.Tables Model.PercentEncoding
  Model.HostT Model.Host Model.UrlRecord Model.Parser Model.Setters Model.WF
  Proofs.ListN Proofs.C06_List Proofs.C02_Parts Proofs.C03_WF Proofs.C06_WFI
  Proofs.C03_ReachParts Proofs.C05_Enc Proofs.C05_Parser Proofs.C05_Sharp Proofs.C05_Frag Proofs.C05_PathClean
  Proofs.C05_HostParse Proofs.C09_LongRun.

Section Track.
Variable dbg : bool.
Variable hp1 hp2 hpo : list N -> result host.
Variable hd : host -> list N.
Variable ovr : option (list N -> list N).
Variable G : list N -> Prop.
Hypothesis HG : forall s h, hp2 s = Ok h -> G (hd h) -> hp1 s = Ok h.
Hypothesis G_local : forall d, list_eqb d s_localhost = true -> G (hd (HDomain d)).

Lemma get_file_host_G l h rem : get_file_host hp2 l = POk (h, rem) -> G (hd h) -> get_file_host hp1 l = POk (h, rem).
Proof.
  unfold get_file_host. destruct (file_host l) as [t rm]. intros H Gh.
  destruct (hp2 t) as [h0|e] eqn:Eh; cbn [of_result pbind] in H; [|discriminate].
  assert (G (hd h0)) as Gh0.
  { destruct h0 as [d|a|q]; try (inversion H; subst; exact Gh).
    destruct (list_eqb d s_localhost) eqn:El; [apply G_local; exact El | inversion H; subst; exact Gh]. }
  rewrite (HG t h0 Eh Gh0). cbn [of_result pbind]. exact H.
Qed.

Lemma parse_host_G st l h rem : parse_host hp2 hpo st l = POk (h, rem) -> G (hd h) -> parse_host hp1 hpo st l = POk (h, rem).
Proof.
  unfold parse_host. destruct (st_is_file st); [apply get_file_host_G|].
  destruct (host_scan (st_is_special st) false [] l) as [t rm].
  destruct (scheme_type_eqb st STSpecialNotFile && match t with [] => true | _ :: _ => false end); [intros H; discriminate H|].
  destruct (negb (st_is_special st)); [intros H _; exact H|].
  intros H Gh. destruct (hp2 t) as [h0|e] eqn:Eh; cbn [of_result pbind] in H; [|discriminate].
  inversion H; subst. rewrite (HG t h Eh Gh). reflexivity.
Qed.

Lemma phap_G ctx st se ser l ser2 he hi pt rem :
  parse_host_and_port hp2 hpo hd ctx st se ser l = POk (ser2, he, hi, pt, rem) ->
  exists h, ser2 = ser ++ hd h ++ ptext pt /\ he = nlen ser + nlen (hd h) /\ hi = hi_of_host h
    /\ (G (hd h) -> parse_host_and_port hp1 hpo hd ctx st se ser l = POk (ser2, he, hi, pt, rem)).
Proof.
  unfold parse_host_and_port. intros H.
  destruct (parse_host hp2 hpo st l) as [[h remaining]| |] eqn:Ea; cbn [pbind] in H; try discriminate.
  exists h.
  assert (ser2 = ser ++ hd h ++ ptext pt /\ he = nlen ser + nlen (hd h) /\ hi = hi_of_host h) as (E1 & E2 & E3).
  { cbv zeta in H. pb H he0 Hhe. apply to_u32_eq in Hhe. subst he0. pb H x Hx.
    destruct (inp_split_prefix_char 58 remaining) as [rm|].
    - pb H b Hb. destruct b as [port rem2]. inversion H; subst. split; [|split; [apply nlen_app | reflexivity]].
      destruct pt as [p|]; cbn [ptext]; [|rewrite app_nil_r; reflexivity]. rewrite <- app_assoc. reflexivity.
    - inversion H; subst. cbn [ptext]. rewrite app_nil_r. split; [reflexivity|]. split; [apply nlen_app | reflexivity]. }
  split; [exact E1|]. split; [exact E2|]. split; [exact E3|].
  intros Gh. rewrite (parse_host_G st l h remaining Ea Gh). cbn [pbind]. exact H.
Qed.

Lemma wqf_hs_he ctx st se ue hs he hi pt ps s rem u :
  with_query_and_fragment ovr ctx st se ue hs he hi pt ps s rem = POk u -> host_start u = hs /\ host_end u = he.
Proof.
  unfold with_query_and_fragment. intros H. pb H a Ha. destruct a as [s1 ps1]. pb H b Hb. destruct b as [[s2 qs] fs].
  inversion H; subst. split; reflexivity.
Qed.

Lemma ht_empty u : host_end u = host_start u -> ht u = [].
Proof. intros E. unfold ht, piece. rewrite E, N.sub_diag. reflexivity. Qed.

(* ---------- after "//" ---------- *)
Theorem after_double_slash_G ctx st se ser0 l u : se < nlen ser0 ->
  after_double_slash dbg hp2 hpo hd ovr ctx st se ser0 l = POk u -> G (ht u) ->
  after_double_slash dbg hp1 hpo hd ovr ctx st se ser0 l = POk u.
Proof.
  intros L0. unfold after_double_slash. cbv zeta. intros H Gu.
  destruct (parse_userinfo st (ser0 ++ [47; 47]) l) as [[[ser1 ue] rm]| |] eqn:Ea; cbn [pbind] in H |- *; try discriminate.
  destruct (parse_userinfo_shape _ _ _ _ _ _ Ea) as (x & -> & _).
  destruct (to_u32 (nlen ((ser0 ++ [47; 47]) ++ x))) as [hs| |] eqn:Ehs; cbn [pbind] in H |- *; try discriminate.
  apply to_u32_eq in Ehs. subst hs.
  destruct (parse_host_and_port hp2 hpo hd ctx st se ((ser0 ++ [47; 47]) ++ x) rm) as [[[[[ser2 he] hi] pt] rm2]| |] eqn:Eb;
    cbn [pbind] in H; try discriminate.
  destruct (phap_G _ _ _ _ _ _ _ _ _ _ Eb) as (h & E1 & E2 & E3 & Hrew).
  assert (ht u = hd h) as Eht.
  { subst ser2 he hi.
    match type of H with (if ?c then _ else _) = _ => destruct c; [discriminate|] end.
    pb H ps Hps. apply to_u32_eq in Hps. subst ps.
    pb H c Hc. destruct c as [[s3 hh] rm3].
    destruct (parse_path_start_clean dbg ctx st true _ rm2 s3 hh rm3 Hc) as (P & -> & _).
    destruct (wqf_hs_he _ _ _ _ _ _ _ _ _ _ _ _ H) as [F1 F2].
    destruct (hd h) as [|c0 t0] eqn:Ehd.
    { apply ht_empty. rewrite F1, F2, nlen_nil. lia. }
    destruct (wqf_pre _ _ _ _ _ _ _ _ _ _ _ _ _ H) as (_ & _ & _ & _ & (t & E)).
    { pose proof (nlen_cons c0 t0) as Lc. rewrite !nlen_app. change (nlen [47; 47]) with 2. lia. }
    apply (piece_mid u ((ser0 ++ [47; 47]) ++ x) (c0 :: t0) (ptext pt ++ P ++ t)); [|exact F1 | exact F2].
    rewrite E, <- !app_assoc. reflexivity. }
  rewrite Eht in Gu. rewrite (Hrew Gu). cbn [pbind]. exact H.
Qed.

Lemma parse_non_special_G ctx st se ser0 l u : se < nlen ser0 ->
  parse_non_special dbg hp2 hpo hd ovr ctx st se ser0 l = POk u -> G (ht u) ->
  parse_non_special dbg hp1 hpo hd ovr ctx st se ser0 l = POk u.
Proof.
  intros L0. unfold parse_non_special. destruct (inp_split_prefix_str s_ss l) as [rm|]; [apply after_double_slash_G; exact L0|].
  intros H _. exact H.
Qed.

(* ---------- relative references: the host is parsed in the "//" arm only ---------- *)
Lemma parse_relative_G ctx st b l u : scheme_end b < nlen (ser b) ->
  parse_relative dbg hp2 hpo hd ovr ctx st b l = POk u -> G (ht u) ->
  parse_relative dbg hp1 hpo hd ovr ctx st b l = POk u.
Proof.
  intros Lb. unfold parse_relative. destruct (inp_split_first l) as [fc after]. destruct fc as [c|]; [|intros H _; exact H].
  destruct (c =? 63); [intros H _; exact H|]. destruct (c =? 35); [intros H _; exact H|].
  destruct ((c =? 47) || (c =? 92) && st_is_special st); [|intros H _; exact H].
  destruct (inp_count_matching (fun d => (d =? 47) || (d =? 92) && st_is_special st) l) as [slashes remaining].
  destruct (2 <=? slashes); [|intros H _; exact H]. cbv zeta.
  destruct (dassert dbg match nnth (ser b) (scheme_end b) with Some b0 => b0 =? 58 | None => false end) as [x| |];
    cbn [pbind]; try (intros H; discriminate H).
  assert (scheme_end b < nlen (nfirstn (scheme_end b + 1) (ser b))) as L1 by (rewrite nlen_nfirstn by lia; lia).
  destruct (negb (st_is_special st)); [destruct (inp_split_prefix_str s_ss l)|]; apply after_double_slash_G; exact L1.
Qed.

(* ---------- the file states ---------- *)
Lemma pfh_G ser l ser1 flag hi rem : parse_file_host hp2 hd ser l = POk (ser1, flag, hi, rem) ->
  parse_file_host hp1 hd ser l = POk (ser1, flag, hi, rem)
  \/ exists h, ser1 = ser ++ hd h /\ flag = true /\ hi = hi_of_host h
       /\ (G (hd h) -> parse_file_host hp1 hd ser l = POk (ser1, flag, hi, rem)).
Proof.
  unfold parse_file_host. destruct (file_host l) as [t rm]. destruct t as [|c t']; [intros H; left; exact H|].
  intros H. destruct (hp2 (c :: t')) as [h|e] eqn:Eh; cbn [of_result pbind] in H; [|discriminate].
  assert (G (hd h) -> hp1 (c :: t') = Ok h) as Hh by (intros Gh; exact (HG _ _ Eh Gh)).
  assert (POk (ser ++ hd h, true, hi_of_host h, rm) = POk (ser1, flag, hi, rem) ->
          (match h with
           | HDomain d => if list_eqb d s_localhost then POk (ser, false, HI_None, rm)
                          else POk (ser ++ hd h, true, hi_of_host h, rm)
           | _ => POk (ser ++ hd h, true, hi_of_host h, rm)
           end = POk (ser1, flag, hi, rem)) ->
          exists h0, ser1 = ser ++ hd h0 /\ flag = true /\ hi = hi_of_host h0
            /\ (G (hd h0) -> (host <~ of_result (hp1 (c :: t')) ;;
                  match host with
                  | HDomain d => if list_eqb d s_localhost then POk (ser, false, HI_None, rm)
                                 else POk (ser ++ hd host, true, hi_of_host host, rm)
                  | _ => POk (ser ++ hd host, true, hi_of_host host, rm)
                  end) = POk (ser1, flag, hi, rem))) as Hgen.
  { intros X Y. inversion X; subst. exists h. repeat split. intros Gh. rewrite (Hh Gh). cbn [of_result pbind]. exact Y. }
  destruct h as [d|a|q]; try (right; exact (Hgen H H)).
  pose proof H as H'. destruct (list_eqb d s_localhost) eqn:El; [|right; exact (Hgen H' H)].
  left. rewrite (Hh (G_local d El)). cbn [of_result pbind]. rewrite El. exact H'.
Qed.

Theorem parse_file_G ctx st base_file l u :
  parse_file dbg hp2 hd ovr ctx st base_file l = POk u -> G (ht u) -> (b_scheme u = s_file -> hosti u <> HI_None) ->
  parse_file dbg hp1 hd ovr ctx st base_file l = POk u.
Proof.
  unfold parse_file. destruct (inp_split_first l) as [first_char after_first].
  destruct (match first_char with Some c => is_slash_or_bslash c | None => false end); [|intros H _ _; exact H].
  destruct (inp_split_first after_first) as [next_char after_next].
  destruct (match next_char with Some c => is_slash_or_bslash c | None => false end); [|intros H _ _; exact H].
  intros H Gu Hn.
  destruct (parse_file_host hp2 hd s_file_css after_next) as [[[[ser1 flag] hi] remaining]| |] eqn:Ea;
    cbn [pbind] in H; try discriminate.
  destruct (pfh_G _ _ _ _ _ _ Ea) as [E1|(h & -> & -> & -> & Hrew)]; [rewrite E1; cbn [pbind]; exact H|].
  assert (G (hd h)) as Gh.
  { pb H he Hhe. apply to_u32_eq in Hhe. subst he. cbv beta iota zeta in H. pb H b Hb2. destruct b as [[ser2 hh] rem2].
    destruct (parse_path_start_clean dbg ctx STFile _ _ _ _ _ _ Hb2) as (P & -> & _).
    destruct (negb hh); cbv beta iota zeta in H; pb H c Hc; destruct c as [[ser4 qs] fs]; inversion H; subst u.
    - exfalso. apply Hn; [|reflexivity].
      destruct (parse_query_and_fragment_app _ _ _ _ _ _ _ _ _ Hc) as (t & -> & _).
      unfold b_scheme, file_url. cbn [ser scheme_end]. rewrite <- !app_assoc.
      change 7 with (nlen s_file_css) at 1. rewrite nfirstn_app_exact. reflexivity.
    - destruct (parse_query_and_fragment_app _ _ _ _ _ _ _ _ _ Hc) as (t & -> & _).
      match type of Gu with G (ht ?v) => assert (ht v = hd h) as E end.
      { apply (piece_mid _ s_file_css (hd h) (P ++ t)); [cbn [ser file_url]; rewrite <- !app_assoc; reflexivity | reflexivity|].
        cbn [host_end file_url]. exact (nlen_app s_file_css (hd h)). }
      rewrite E in Gu. exact Gu. }
  rewrite (Hrew Gh). cbn [pbind]. exact H.
Qed.

(* ---------- top level ---------- *)
Theorem parse_with_scheme_G base sch l u :
  match base with Some b => scheme_end b < nlen (ser b) | None => True end ->
  parse_with_scheme dbg hp2 hpo hd ovr base sch l = POk u -> G (ht u) -> (b_scheme u = s_file -> hosti u <> HI_None) ->
  parse_with_scheme dbg hp1 hpo hd ovr base sch l = POk u.
Proof.
  intros Hb. unfold parse_with_scheme.
  destruct (to_u32 (nlen sch)) as [se| |] eqn:Ese; cbn [pbind]; try (intros H; discriminate H).
  apply to_u32_eq in Ese. subst se. cbv zeta.
  assert (nlen sch < nlen (sch ++ [58])) as L0 by (rewrite nlen_app; change (nlen [58]) with 1; lia).
  destruct (scheme_type_of sch).
  - apply parse_file_G.
  - destruct (inp_count_matching is_slash_or_bslash l) as [slashes remaining].
    destruct base as [b|]; [|intros H Gu _; exact (after_double_slash_G _ _ _ _ _ u L0 H Gu)].
    destruct ((slashes <? 2) && list_eqb (b_scheme b) sch); [|intros H Gu _; exact (after_double_slash_G _ _ _ _ _ u L0 H Gu)].
    match goal with |- pbind ?e _ = _ -> _ => destruct e as [x| |]; cbn [pbind]; try (intros H; discriminate H) end.
    intros H Gu _. exact (parse_relative_G _ _ _ _ u Hb H Gu).
  - intros H Gu _. exact (parse_non_special_G _ _ _ _ _ u L0 H Gu).
Qed.

Theorem parse_url_G base input u :
  match base with Some b => scheme_end b < nlen (ser b) | None => True end ->
  parse_url dbg hp2 hpo hd ovr base input = POk u -> G (ht u) -> (b_scheme u = s_file -> hosti u <> HI_None) ->
  parse_url dbg hp1 hpo hd ovr base input = POk u.
Proof.
  intros Hb. unfold parse_url. cbv zeta.
  destruct (parse_scheme CUrlParser (input_new_trim_c0 input)) as [[scheme remaining]|]; [apply parse_with_scheme_G; exact Hb|].
  destruct base as [b|]; [|intros H _ _; exact H].
  destruct (inp_starts_with_char 35 (input_new_trim_c0 input)); [intros H _ _; exact H|].
  destruct (cannot_be_a_base b) as [[|]|]; try (intros H _ _; exact H).
  destruct (st_is_file (scheme_type_of (b_scheme b))); [apply parse_file_G|].
  intros H Gu _. exact (parse_relative_G _ _ _ _ u Hb H Gu).
Qed.
End Track.

(* ================= the mutators that call Host::parse ================= *)
Section TrackSet.
Variable dbg : bool.
Variable hp1 hp2 hpo : list N -> result host.
Variable hd : host -> list N.
Variable G : list N -> Prop.
Variable E : parse_error.
Hypothesis HP : forall s, hp1 s = hp2 s \/ hp1 s = Err E.
Hypothesis HG : forall s h, hp2 s = Ok h -> G (hd h) -> hp1 s = Ok h.
Hypothesis G_local : forall d, list_eqb d s_localhost = true -> G (hd (HDomain d)).
Hypothesis G_empty : G (hd (HDomain [])).

Ltac obn H x Hx :=
  match type of H with bindo ?e _ = Some _ => destruct e as [x|] eqn:Hx; cbn [bindo] in H; [|discriminate H] end.

(* set_host_internal stores the Display text of the new host as the host text *)
Lemma shi_ht u h onp u' : host_start u <= nlen (ser u) -> set_host_internal dbg hd u h onp = Some u' -> ht u' = hd h.
Proof.
  unfold set_host_internal. intros L H. cbv zeta in H. obn H suffix Hsuf. obn H ha Hha. obn H a Ha. destruct a as [[s1 ue] hs].
  assert (nlen (truncate (ser u) (host_start u)) = host_start u) as Lt by (unfold truncate; apply nlen_nfirstn; exact L).
  assert (nlen s1 = hs) as L1.
  { destruct (negb ha).
    - match type of Ha with bindo ?e _ = Some _ => destruct e; cbn [bindo] in Ha; [|discriminate Ha] end.
      inversion Ha; subst. rewrite nlen_app, Lt. reflexivity.
    - inversion Ha; subst. exact Lt. }
  destruct onp as [np|].
  - destruct np as [p|]; cbv beta iota zeta in H; obn H ps Hps; obn H qs Hq; obn H fs Hf; inversion H; subst u'.
    + apply (piece_mid _ s1 (hd h) (([58] ++ decimal p) ++ suffix)); [cbn [ser]; rewrite <- !app_assoc; reflexivity | cbn [host_start]; congruence|].
      cbn [host_end host_start]. rewrite nlen_app. reflexivity.
    + apply (piece_mid _ s1 (hd h) suffix); [cbn [ser]; rewrite <- !app_assoc; reflexivity | cbn [host_start]; congruence|].
      cbn [host_end host_start]. rewrite nlen_app. reflexivity.
  - cbv beta iota zeta in H. obn H ps Hps. obn H qs Hq. obn H fs Hf. inversion H; subst u'.
    apply (piece_mid _ s1 (hd h) suffix); [cbn [ser]; rewrite <- !app_assoc; reflexivity | cbn [host_start]; congruence|].
    cbn [host_end host_start]. rewrite nlen_app. reflexivity.
Qed.

Ltac obm H x Hx :=
  match type of H with option_map fst (bindo ?e _) = Some _ =>
    destruct e as [x|] eqn:Hx; cbn [bindo option_map] in H; [|discriminate H] end.

(* results with the status dropped: a refused host leaves the URL as it was, with either parser *)
Theorem set_host_G u x u' : host_start u <= nlen (ser u) ->
  option_map fst (set_host dbg hp2 hpo hd u x) = Some u' -> G (ht u') ->
  option_map fst (set_host dbg hp1 hpo hd u x) = Some u'.
Proof.
  intros L. unfold set_host. destruct (cannot_be_a_base u) as [[|]|]; cbn [bindo]; try (intros H _; exact H).
  destruct (u_scheme_type u) as [st|]; cbn [bindo]; [|intros H _; exact H].
  destruct x as [hs|]; [|intros H _; exact H].
  destruct ((match hs with [] => true | _ :: _ => false end) && st_is_special st && negb (st_is_file st)); [intros H _; exact H|].
  match goal with |- context [match ?s with Some hsub => _ | None => Some (u, SErr InvalidDomainCharacter) end] =>
    destruct s as [hsub|] end; [|intros H _; exact H].
  destruct (st_is_special st); [|intros H _; exact H].
  destruct (hp2 hsub) as [h|e] eqn:Eh.
  - intros H Gu. assert (G (hd h)) as Gh.
    { obm H u0 Hu0. inversion H; subst u0. rewrite <- (shi_ht u h None u' L Hu0). exact Gu. }
    rewrite (HG hsub h Eh Gh). exact H.
  - intros H _. destruct (HP hsub) as [->| ->]; [rewrite Eh|]; exact H.
Qed.

Theorem q_set_host_G u v u' : host_start u <= nlen (ser u) ->
  option_map fst (q_set_host dbg hp2 hpo hd u v) = Some u' -> G (ht u') ->
  option_map fst (q_set_host dbg hp1 hpo hd u v) = Some u'.
Proof.
  intros L. unfold q_set_host. destruct (cannot_be_a_base u) as [[|]|]; cbn [bindo]; try (intros H _; exact H).
  destruct (scheme u) as [sc|]; cbn [bindo]; [|intros H _; exact H].
  destruct (scheme_type_eqb (scheme_type_of sc) STFile && match v with [] => true | _ :: _ => false end); [intros H _; exact H|].
  destruct (parse_host hp2 hpo (scheme_type_of sc) (input_new_no_trim v)) as [[h rem]|e|] eqn:Eh.
  - cbn [pres_ok bindo]. intros H Gu. assert (G (hd h)) as Gh.
    { cbv zeta in H. obm H op Hop. obm H un Hun.
      match type of H with option_map fst (if ?c then _ else _) = _ => destruct c eqn:Ec end.
      - apply andb_true_iff in Ec. destruct Ec as [Ec _]. destruct h as [[|c d]|a|q]; try discriminate Ec. exact G_empty.
      - obm H u0 Hu0. inversion H; subst u0. rewrite <- (shi_ht u h op u' L Hu0). exact Gu. }
    rewrite (parse_host_G hp1 hp2 hpo hd G HG G_local _ _ h rem Eh Gh). cbn [pres_ok bindo]. exact H.
  - cbn [pres_ok bindo]. intros H _.
    destruct (C09_LongRun.parse_host_or hp1 hp2 hpo E HP (scheme_type_of sc) (input_new_no_trim v)) as [X|X]; rewrite X;
      [rewrite Eh|]; cbn [pres_ok bindo]; exact H.
  - cbn [pres_ok bindo option_map]. intros H. discriminate H.
Qed.

Theorem q_set_hostname_G u v u' : host_start u <= nlen (ser u) ->
  option_map fst (q_set_hostname dbg hp2 hpo hd u v) = Some u' -> G (ht u') ->
  option_map fst (q_set_hostname dbg hp1 hpo hd u v) = Some u'.
Proof.
  intros L. unfold q_set_hostname. destruct (cannot_be_a_base u) as [[|]|]; cbn [bindo]; try (intros H _; exact H).
  destruct (scheme u) as [sc|]; cbn [bindo]; [|intros H _; exact H].
  destruct (scheme_type_eqb (scheme_type_of sc) STFile && match v with [] => true | _ :: _ => false end); [intros H _; exact H|].
  destruct (parse_host hp2 hpo (scheme_type_of sc) (input_new_no_trim v)) as [[h rem]|e|] eqn:Eh.
  - cbn [pres_ok bindo]. intros H Gu. assert (G (hd h)) as Gh.
    { obm H rj Hrj. destruct rj.
      - destruct h as [[|c d]|a|q]; try (inversion Hrj; fail). exact G_empty.
      - obm H u0 Hu0. inversion H; subst u0. rewrite <- (shi_ht u h None u' L Hu0). exact Gu. }
    rewrite (parse_host_G hp1 hp2 hpo hd G HG G_local _ _ h rem Eh Gh). cbn [pres_ok bindo]. exact H.
  - cbn [pres_ok bindo]. intros H _.
    destruct (C09_LongRun.parse_host_or hp1 hp2 hpo E HP (scheme_type_of sc) (input_new_no_trim v)) as [X|X]; rewrite X;
      [rewrite Eh|]; cbn [pres_ok bindo]; exact H.
  - cbn [pres_ok bindo option_map]. intros H. discriminate H.
Qed.
End TrackSet.

(* ================= B. the capped oracle: run_clean and step_clean from the RESULT ================= *)
From RU Require Import Proofs.C09_Wf Proofs.C09_Host Proofs.C09_Inst Proofs.C09_Long Proofs.C09_LongHist Proofs.C09_LongWit
  Proofs.C05_History Proofs.Inst_Host.

(* the result-level premise: the stored host text is outside Known_C10_long, and a file URL has kept its host *)
Definition res_clean (u : url) : bool :=
  negb (known_c10_long (ht u)) && (negb (list_eqb (b_scheme u) s_file) || has_host u).

Lemma long_localhost d : list_eqb d s_localhost = true -> known_c10_long (host_display (HDomain d)) = false.
Proof. intros H. apply list_eqb_spec in H. subst d. vm_compute. reflexivity. Qed.

Lemma long_empty : known_c10_long (host_display (HDomain [])) = false.
Proof. vm_compute. reflexivity. Qed.

Lemma wf_host_start u : wf_b u = true -> host_start u <= nlen (ser u).
Proof.
  intros W. destruct (has_authority_b u) eqn:Ha.
  - pose proof (wf_auth_facts u W Ha) as F. pose proof (af_he F). pose proof (af_ps F). pose proof (af_len F). lia.
  - pose proof (wf_noauth_facts u W Ha) as F. pose proof (nf_hs F). pose proof (proj2 (proj2 (wf_scheme_facts u W))). lia.
Qed.

Lemma drop_status_fst r : drop_status r = option_map fst r.
Proof. destruct r as [[u s]|]; reflexivity. Qed.

Section CapRun.
Variable dbg : bool.
Variable idna : list N -> option (list N).
Hypothesis OK : IdnaOK2 idna.

Notation hp := (host_parse idna).
Notation hpc := (host_parse (cap idna)).
Notation hpo := host_parse_opaque.
Notation hd := host_display.

Let HGc : forall s h, hp s = Ok h -> known_c10_long (hd h) = false -> hpc s = Ok h :=
  fun s h Hs K => cap_result idna s h OK Hs K.

(* every successful run whose result passes res_clean is a clean run *)
Theorem run_clean_of_result ovr base input u :
  match base with Some b => wf_b b = true | None => True end ->
  parse_url dbg hp hpo hd ovr base input = POk u -> res_clean u = true -> run_clean dbg idna ovr base input.
Proof.
  intros Hb H C. unfold res_clean in C. apply andb_true_iff in C. destruct C as [C1 C2]. apply negb_true_iff in C1.
  unfold run_clean. rewrite H.
  apply (parse_url_G dbg hpc hp hpo hd ovr (fun t => known_c10_long t = false) HGc long_localhost base input u).
  - destruct base as [b|]; [|exact I]. exact (proj2 (proj2 (wf_scheme_facts b Hb))).
  - exact H.
  - exact C1.
  - intros Es X. rewrite Es in C2. unfold has_host in C2. rewrite X in C2. discriminate C2.
Qed.

(* non-file results: the host text alone *)
Corollary run_clean_of_result_nonfile ovr base input u :
  match base with Some b => wf_b b = true | None => True end ->
  parse_url dbg hp hpo hd ovr base input = POk u -> b_scheme u <> s_file -> known_c10_long (ht u) = false ->
  run_clean dbg idna ovr base input.
Proof.
  intros Hb H Hn K. apply (run_clean_of_result ovr base input u Hb H). unfold res_clean. rewrite K. cbn [negb andb].
  destruct (list_eqb (b_scheme u) s_file) eqn:El; [apply list_eqb_spec in El; contradiction | reflexivity].
Qed.

(* the three mutators: a step whose result has its host text outside the class is a clean step *)
Theorem step_clean_of_result u o u' : wf_b u = true ->
  C05_History.apply_op dbg hp hpo hd u o = Some u' -> known_c10_long (ht u') = false -> step_clean dbg idna u o.
Proof.
  intros W H K. unfold step_clean. rewrite H. pose proof (wf_host_start u W) as L.
  destruct o; try exact H; cbn [C05_History.apply_op] in H |- *; rewrite drop_status_fst in H |- *.
  - exact (set_host_G dbg hpc hp hpo hd (fun t => known_c10_long t = false) IdnaError (cap_dichotomy idna) HGc u h u' L H K).
  - exact (q_set_host_G dbg hpc hp hpo hd (fun t => known_c10_long t = false) IdnaError (cap_dichotomy idna) HGc long_localhost
             long_empty u v u' L H K).
  - exact (q_set_hostname_G dbg hpc hp hpo hd (fun t => known_c10_long t = false) IdnaError (cap_dichotomy idna) HGc long_localhost
             long_empty u v u' L H K).
Qed.
End CapRun.

(* ================= the file exclusion of res_clean is necessary; non-vacuity ================= *)
From Coq Require Import String.
Local Notation Bq := C02_Reach.B.

(* stand-in oracle idna_long (IdnaOK2 holds, "x" is answered inside the class): Url::parse("file://x/C:/") succeeds with
   the serialization file:///C:/ - the path parser drops the host in front of a drive letter - so the result has no host
   text at all, while the run did call Host::parse on a host inside the class: the capped run stops with IdnaError *)
Definition wq_input : list N := Bq "file://x/C:/".

Theorem run_clean_file_refuted :
  match parse_url true (host_parse idna_long) host_parse_opaque host_display None None wq_input with
  | POk u => list_eqb (ser u) (Bq "file:///C:/") && hi_eqb (hosti u) HI_None && negb (known_c10_long (ht u))
             && negb (res_clean u)
  | _ => false
  end = true
  /\ parse_url true (host_parse (cap idna_long)) host_parse_opaque host_display None None wq_input = PErr IdnaError
  /\ ~ run_clean true idna_long None None wq_input.
Proof.
  assert (parse_url true (host_parse (cap idna_long)) host_parse_opaque host_display None None wq_input = PErr IdnaError) as E2
    by (vm_compute; reflexivity).
  split; [vm_compute; reflexivity|]. split; [exact E2|].
  unfold run_clean. rewrite E2. vm_compute. intros H. discriminate H.
Qed.

Theorem run_clean_needs_file_clause :
  ~ (forall dbg idna, IdnaOK2 idna -> forall input u,
       parse_url dbg (host_parse idna) host_parse_opaque host_display None None input = POk u ->
       known_c10_long (ht u) = false -> run_clean dbg idna None None input).
Proof.
  intros H. destruct run_clean_file_refuted as (_ & _ & N). apply N.
  destruct (parse_url true (host_parse idna_long) host_parse_opaque host_display None None wq_input) as [u| |] eqn:E;
    try (vm_compute in E; discriminate E).
  apply (H true idna_long idna_long_ok2 wq_input u E).
  assert (match parse_url true (host_parse idna_long) host_parse_opaque host_display None None wq_input with
          | POk v => known_c10_long (ht v) | _ => true end = false) as K by (vm_compute; reflexivity).
  rewrite E in K. exact K.
Qed.

(* non-vacuity: results that pass res_clean (a special URL, a file URL with a host, a step of quirks set_host) *)
Example res_clean_examples :
  match parse_url true (host_parse idna_long) host_parse_opaque host_display None None (Bq "http://a.b:81/p") with
  | POk u => res_clean u && list_eqb (ht u) (Bq "a.b")
             && match C05_History.apply_op true (host_parse idna_long) host_parse_opaque host_display u (C05_History.OQHost (Bq "c.d:82")) with
                | Some u' => list_eqb (ser u') (Bq "http://c.d:82/p") && negb (known_c10_long (ht u'))
                | None => false
                end
  | _ => false
  end = true
  /\ match parse_url true (host_parse idna_long) host_parse_opaque host_display None None (Bq "file://a.b/p") with
     | POk u => res_clean u | _ => false end = true
  /\ match parse_url true (host_parse idna_long) host_parse_opaque host_display None None (Bq "http://x/") with
     | POk u => res_clean u | _ => true end = false.
Proof. vm_compute. repeat split; reflexivity. Qed.
