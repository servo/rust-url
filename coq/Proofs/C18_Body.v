(* Proofs/C18_Body.v - decode_without_base64 / decode_with_base64 against any sink. *)
From RU Require Import Base.Prelude Gen.Tables Model.Base64 Proofs.C18_Machine.

(* pure trace of decode_without_base64's loop: chunks written if every write succeeds, then
   Some fragment-option, or None for the slice panic *)
Fixpoint pdwo_loop (bytes : list N) (i slice_start : nat) (rest : list N)
  : list (list N) * option (option (list N)) :=
  match rest with
  | [] =>
      if (length bytes <? slice_start)%nat then ([], None)
      else ([skipn slice_start bytes], Some None)
  | byte :: rest' =>
      if memb byte T_BODY_SPECIAL then
        let pre := if (slice_start <? i)%nat then [slice bytes slice_start i] else [] in
        let ss1 := if (slice_start <? i)%nat then i else slice_start in
        if byte =? 37 then
          let l := match rest' with _ :: b :: _ => to_digit16 b | _ => None end in
          let h := match rest' with b :: _ => to_digit16 b | _ => None end in
          match h, l with
          | Some hv, Some lv =>
              let (cs, fin) := pdwo_loop bytes (S i) (i + 3)%nat rest' in (pre ++ [hv * 16 + lv] :: cs, fin)
          | _, _ => let (cs, fin) := pdwo_loop bytes (S i) ss1 rest' in (pre ++ cs, fin)
          end
        else if byte =? 35 then (pre, Some (Some (skipn (i + 1) bytes)))
        else let (cs, fin) := pdwo_loop bytes (S i) (i + 1)%nat rest' in (pre ++ cs, fin)
      else pdwo_loop bytes (S i) slice_start rest'
  end.

Definition pdwo (body : list N) := pdwo_loop body 0%nat 0%nat body.

Definition body_fin {E} (fin : option (option (list N))) : body_result E :=
  match fin with Some f => BodyOk f | None => BodyPanic end.

(* the byte a "%XY" stands for, read off the two bytes after the '%' *)
Definition pct_value (rest : list N) : option N :=
  match rest with
  | h :: l :: _ => match hex_val h, hex_val l with Some hv, Some lv => Some (hv * 16 + lv) | _, _ => None end
  | _ => None
  end.

(* one byte of the loop, all cases: the pending slice is written first, then the special byte acts *)
Lemma pdwo_loop_cons bytes i ss byte rest' :
  pdwo_loop bytes i ss (byte :: rest') =
  if memb byte T_BODY_SPECIAL then
    let pre := if (ss <? i)%nat then [slice bytes ss i] else [] in
    let ss1 := if (ss <? i)%nat then i else ss in
    let next ss' := pdwo_loop bytes (S i) ss' rest' in
    if byte =? 37 then
      match pct_value rest' with
      | Some v => (pre ++ [v] :: fst (next (i + 3)%nat), snd (next (i + 3)%nat))
      | None => (pre ++ fst (next ss1), snd (next ss1))
      end
    else if byte =? 35 then (pre, Some (Some (skipn (i + 1) bytes)))
    else (pre ++ fst (next (i + 1)%nat), snd (next (i + 1)%nat))
  else pdwo_loop bytes (S i) ss rest'.
Proof.
  cbn [pdwo_loop]. cbv zeta. unfold to_digit16. destruct (memb byte T_BODY_SPECIAL); [|reflexivity].
  destruct (byte =? 37).
  - destruct rest' as [|h [|l r]]; cbn [pct_value].
    + destruct (pdwo_loop bytes (S i) _ []). reflexivity.
    + destruct (hex_val h); destruct (pdwo_loop bytes (S i) _ [h]); reflexivity.
    + destruct (hex_val h); [destruct (hex_val l)|];
        (destruct (pdwo_loop bytes (S i) _ (h :: l :: r)); reflexivity).
  - destruct (byte =? 35); [reflexivity|]. destruct (pdwo_loop bytes (S i) (i + 1) rest'). reflexivity.
Qed.

Section AnySink.
  Context {W E : Type}.
  Variable write : W -> list N -> W * option E.

  Definition execb (w : W) (t : list (list N) * option (option (list N))) : W * body_result E :=
    match attempt write w (fst t) with
    | (w', None) => (w', body_fin (snd t))
    | (w', Some e) => (w', BodyErr e)
    end.

  Lemma execb_cons w c cs fin :
    execb w (c :: cs, fin) = match write w c with
                             | (w', Some e) => (w', BodyErr e)
                             | (w', None) => execb w' (cs, fin)
                             end.
  Proof.
    unfold execb. cbn [fst snd attempt]. destruct (write w c) as [w' [e|]]; reflexivity.
  Qed.

  Lemma execb_app w a cs fin :
    execb w (a ++ cs, fin) = match attempt write w a with
                             | (w', None) => execb w' (cs, fin)
                             | (w', Some e) => (w', BodyErr e)
                             end.
  Proof.
    unfold execb. cbn [fst snd]. rewrite attempt_app. destruct (attempt write w a) as [w' [e|]]; reflexivity.
  Qed.

  Lemma dwo_loop_cons bytes w i ss byte rest' :
    dwo_loop write bytes w i ss (byte :: rest') =
    if memb byte T_BODY_SPECIAL then
      match attempt write w (if (ss <? i)%nat then [slice bytes ss i] else []) with
      | (w1, Some e) => (w1, BodyErr e)
      | (w1, None) =>
          if byte =? 37 then
            match pct_value rest' with
            | Some v => match write w1 [v] with
                        | (w2, Some e) => (w2, BodyErr e)
                        | (w2, None) => dwo_loop write bytes w2 (S i) (i + 3)%nat rest'
                        end
            | None => dwo_loop write bytes w1 (S i) (if (ss <? i)%nat then i else ss) rest'
            end
          else if byte =? 35 then (w1, BodyOk (Some (skipn (i + 1) bytes)))
          else dwo_loop write bytes w1 (S i) (i + 1)%nat rest'
      end
    else dwo_loop write bytes w (S i) ss rest'.
  Proof.
    cbn [dwo_loop]. unfold to_digit16. destruct (memb byte T_BODY_SPECIAL); [|reflexivity].
    destruct (ss <? i)%nat; cbn [attempt];
      [destruct (write w (slice bytes ss i)) as [w1 [e|]]; [reflexivity|]|].
    all: destruct (byte =? 37); [|reflexivity].
    all: destruct rest' as [|h [|l r]]; cbn [pct_value]; [reflexivity | destruct (hex_val h); reflexivity|].
    all: destruct (hex_val h); [destruct (hex_val l)|]; reflexivity.
  Qed.

  Lemma dwo_loop_exec bytes w i ss rest :
    dwo_loop write bytes w i ss rest = execb w (pdwo_loop bytes i ss rest).
  Proof.
    revert w i ss. induction rest as [|byte rest' IH]; intros w i ss.
    - cbn [dwo_loop pdwo_loop]. destruct (length bytes <? ss)%nat; [reflexivity|].
      unfold execb. cbn [fst snd attempt]. destruct (write w (skipn ss bytes)) as [w' [e|]]; reflexivity.
    - rewrite dwo_loop_cons, pdwo_loop_cons. cbv zeta.
      destruct (memb byte T_BODY_SPECIAL); [|apply IH].
      set (pre := if (ss <? i)%nat then [slice bytes ss i] else []).
      destruct (byte =? 37); [destruct (pct_value rest') as [v|] | destruct (byte =? 35)].
      + rewrite execb_app. destruct (attempt write w pre) as [w1 [e|]]; [reflexivity|].
        rewrite execb_cons. destruct (write w1 [v]) as [w2 [e|]]; [reflexivity|]. rewrite IH. reflexivity.
      + rewrite execb_app. destruct (attempt write w pre) as [w1 [e|]]; [reflexivity|]. rewrite IH. reflexivity.
      + unfold execb. cbn [fst snd]. destruct (attempt write w pre) as [w1 [e|]]; reflexivity.
      + rewrite execb_app. destruct (attempt write w pre) as [w1 [e|]]; [reflexivity|]. rewrite IH. reflexivity.
  Qed.

  Theorem dwo_exec w body : decode_without_base64 write w body = execb w (pdwo body).
  Proof. apply dwo_loop_exec. Qed.
End AnySink.

(* the slice panic is unreachable *)
Lemma pdwo_loop_no_panic bytes i ss rest :
  length bytes = (i + length rest)%nat -> (ss <= length bytes)%nat ->
  snd (pdwo_loop bytes i ss rest) <> None.
Proof.
  revert i ss. induction rest as [|byte rest' IH]; intros i ss Hlen Hss; cbn [length] in Hlen.
  - cbn [pdwo_loop]. destruct (length bytes <? ss)%nat eqn:Hlt; [apply Nat.ltb_lt in Hlt; lia | discriminate].
  - (* every new slice_start is at most i + 3, and i + 3 only when two more bytes follow *)
    rewrite pdwo_loop_cons. cbv zeta.
    destruct (memb byte T_BODY_SPECIAL); [|apply IH; lia].
    destruct (byte =? 37); [destruct (pct_value rest') eqn:Ev | destruct (byte =? 35); [discriminate|]];
      cbn [snd]; apply IH; try lia.
    + destruct rest' as [|h [|l r]]; try discriminate Ev. cbn [length] in *. lia.
    + destruct (ss <? i)%nat; lia.
Qed.

Lemma pdwo_no_panic body : exists f, snd (pdwo body) = Some f.
Proof.
  pose proof (pdwo_loop_no_panic body 0 0 body eq_refl ltac:(lia)) as H.
  unfold pdwo. destruct (snd (pdwo_loop body 0 0 body)) as [f|]; [exists f; reflexivity | congruence].
Qed.

Theorem dwo_sink_law body k :
  (1 <= k)%nat ->
  sink_law (BodyErr tt)
    (decode_without_base64 kwrite (ksink_new None) body)
    (decode_without_base64 kwrite (ksink_new (Some k)) body) k.
Proof.
  intros Hk. rewrite !dwo_exec. unfold execb.
  pose proof (attempt_sink_law (BodyErr tt) (body_fin (snd (pdwo body))) (fst (pdwo body)) k Hk) as H.
  destruct (attempt kwrite (ksink_new None) (fst (pdwo body))) as [s1 [[]|]];
  destruct (attempt kwrite (ksink_new (Some k)) (fst (pdwo body))) as [s2 [[]|]]; exact H.
Qed.

(* decode_with_base64 is the Decoder run on the concatenation of what decode_without_base64 writes *)
Definition b64_body_result {E} (f : option (list N)) (v : option (decode_error E)) : body_result (decode_error E) :=
  match v with None => BodyOk f | Some e => BodyErr e end.

Theorem dwb_is_run {W E} (write : W -> list N -> W * option E) w body :
  exists f, snd (pdwo body) = Some f /\
  decode_with_base64 write w body =
  let (w', v) := run write w (concat (fst (pdwo body))) in (w', b64_body_result f v).
Proof.
  destruct (pdwo_no_panic body) as [f Hf]. exists f. split; [exact Hf|].
  unfold decode_with_base64. rewrite dwo_exec. unfold execb.
  rewrite attempt_feed_is_feed_chunks, feed_chunks_concat, Hf. cbn [body_fin].
  rewrite run_unfold.
  destruct (feed write (decoder_new w) (concat (fst (pdwo body)))) as [d [e|]].
  - reflexivity.
  - destruct (finish write d) as [w' [e|]]; reflexivity.
Qed.

(* the sink law speaks of the sink only, except that the verdicts agree: it survives any relabelling of
   the verdict *)
Lemma sink_law_map {V V'} (g : V -> V') werr free failing k :
  sink_law werr free failing k ->
  sink_law (g werr) (fst free, g (snd free)) (fst failing, g (snd failing)) k.
Proof.
  unfold sink_law. cbn [fst snd]. intros [HA HB]. split; [exact HA|].
  destruct (k <=? ks_calls (fst free))%nat; destruct HB as (B1 & B2 & B3); rewrite B2; repeat split; assumption.
Qed.

Theorem dwb_sink_law body k :
  (1 <= k)%nat ->
  sink_law (BodyErr (WriteError tt))
    (decode_with_base64 kwrite (ksink_new None) body)
    (decode_with_base64 kwrite (ksink_new (Some k)) body) k.
Proof.
  intros Hk.
  destruct (dwb_is_run kwrite (ksink_new None) body) as [f [Hf H1]].
  destruct (dwb_is_run kwrite (ksink_new (Some k)) body) as [f' [Hf' H2]].
  rewrite Hf in Hf'. inversion Hf'; subst f'. rewrite H1, H2.
  pose proof (sink_law_map (b64_body_result f) _ _ _ _ (run_sink_law (concat (fst (pdwo body))) k Hk)) as H.
  destruct (run kwrite (ksink_new None) (concat (fst (pdwo body)))).
  destruct (run kwrite (ksink_new (Some k)) (concat (fst (pdwo body)))). exact H.
Qed.

(* DataUrl::decode *)
Theorem data_url_decode_sink_law base64 body k :
  (1 <= k)%nat ->
  sink_law (BodyErr (WriteError tt))
    (data_url_decode kwrite base64 (ksink_new None) body)
    (data_url_decode kwrite base64 (ksink_new (Some k)) body) k.
Proof.
  intros Hk. destruct base64; cbn [data_url_decode]; [apply dwb_sink_law; exact Hk|].
  pose proof (sink_law_map (fun r : body_result unit =>
                              match r with BodyOk f => BodyOk f | BodyErr e => BodyErr (WriteError e) | BodyPanic => BodyPanic end)
                _ _ _ _ (dwo_sink_law body k Hk)) as H.
  destruct (decode_without_base64 kwrite (ksink_new None) body) as [s1 [f1|[]|]];
  destruct (decode_without_base64 kwrite (ksink_new (Some k)) body) as [s2 [f2|[]|]]; exact H.
Qed.
