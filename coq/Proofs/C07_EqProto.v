(* Proofs/C07_EqProto.v - C07 equivalence for the protocol setter: on every pair of related records
   (Proofs/C07_Corr.v corr) whose Standard's record satisfies the invariants `sane`
   (Proofs/C07_SpecProto.v), for every value outside class 6 of Known_C07 (protocol := file on a
   special URL that is not a file URL, F-C07-7), url::quirks::set_protocol does not panic and leaves
   a record related to the result of the Standard's protocol attribute setter (scheme start state /
   scheme state with a state override on "value:"): the same values are not schemes; special <->
   non-special is refused; "file" is refused with credentials or a port; from "file" with an empty
   host is refused; file -> file is refused by the code and is a no-op in the Standard; otherwise
   the scheme text is replaced and a port equal to the new default port is dropped. *)
From RU Require Import Base.Prelude Base.Utf8 Base.Utf8Facts Model.AsciiSet Gen.Tables Model.PercentEncoding
  Model.HostT Model.UrlRecord Model.Parser Model.Setters Model.WF Model.KnownC01 Model.KnownC07 Spec.Whatwg
  Proofs.ListN Proofs.C03_WF Proofs.C06_List Proofs.C06_WFI Proofs.C06_Tail Proofs.C06_Suffix Proofs.C06_Front
  Proofs.C06_Steps Proofs.C06_FragQuery Proofs.C06_Port Proofs.C06_Cred Proofs.C06_Atomic Proofs.C06_Scheme
  Proofs.C02_Enc Proofs.C01_Tables Proofs.C01_EqRun Proofs.C01_EqEnc Proofs.C01_EqApi Proofs.C08_Input
  Proofs.C07_Defs Proofs.C07_Setters Proofs.C07_Corr Proofs.C07_SpecRun Proofs.C07_EqCred Proofs.C07_EqPort
  Proofs.C07_SpecProto.

(* the value up to its first ':' on the model side = the scheme scan on "value:" *)
Lemma setter_scheme_loop l : forall acc,
  match parse_scheme_loop CSetter acc (take_until_colon l), scheme_scan (rev acc) (notnl l ++ [58]) with
  | Some (s, rem), Some (s', _) => s = s' /\ rem = []
  | None, None => True
  | _, _ => False
  end.
Proof.
  induction l as [|c r IH]; intros acc.
  - cbn [take_until_colon parse_scheme_loop ctx_eqb notnl filter app scheme_scan].
    change (is_scheme_cp 58) with false. cbn [N.eqb Pos.eqb]. split; reflexivity.
  - cbn [take_until_colon]. destruct (c =? 58) eqn:E58.
    + apply N.eqb_eq in E58. subst c. cbn [parse_scheme_loop ctx_eqb]. rewrite notnl_cons.
      change (is_tnl 58) with false. cbn [app scheme_scan]. change (is_scheme_cp 58) with false.
      cbn [N.eqb Pos.eqb]. split; reflexivity.
    + cbn [parse_scheme_loop]. rewrite notnl_cons. destruct (is_tnl c) eqn:Et; [apply IH|].
      cbn [app scheme_scan]. unfold is_scheme_cp, is_alnum, is_alpha.
      destruct (is_lower c || is_digit c || (c =? 43) || (c =? 45) || (c =? 46)) eqn:E1.
      * assert (is_upper c = false) as Eu by (unfold is_upper, is_lower, is_digit in *; lia).
        replace (is_upper c || is_lower c || is_digit c || (c =? 43) || (c =? 45) || (c =? 46)) with true
          by (rewrite Eu; cbn [orb]; symmetry; exact E1).
        unfold to_lower. rewrite Eu. specialize (IH (c :: acc)). cbn [rev] in IH. exact IH.
      * destruct (is_upper c) eqn:Eu.
        -- cbn [orb]. unfold to_lower. rewrite Eu. specialize (IH ((c + 32) :: acc)). cbn [rev] in IH. exact IH.
        -- replace (false || is_lower c || is_digit c || (c =? 43) || (c =? 45) || (c =? 46)) with false
             by (symmetry; exact E1).
           rewrite E58. exact I.
Qed.

Lemma setter_scheme_head l :
  inp_starts_with_pred is_alpha (take_until_colon l)
  = match notnl l ++ [58] with c :: _ => is_alpha c | [] => false end.
Proof.
  induction l as [|c r IH]; [reflexivity|].
  cbn [take_until_colon]. destruct (c =? 58) eqn:E58.
  - apply N.eqb_eq in E58. subst c. reflexivity.
  - rewrite notnl_cons. unfold inp_starts_with_pred, inp_next in *. cbn [drop_while].
    destruct (is_tnl c) eqn:Et; [exact IH | reflexivity].
Qed.

Theorem setter_scheme_bridge v :
  match parse_scheme CSetter (take_until_colon v), spec_scheme (notnl v ++ [58]) with
  | Some (s, rem), Some (s', _) => s = s' /\ rem = []
  | None, None => True
  | _, _ => False
  end.
Proof.
  unfold parse_scheme, spec_scheme. rewrite setter_scheme_head.
  destruct (notnl v ++ [58]) as [|c t] eqn:E; [exact I|].
  destruct (is_alpha c); [|exact I]. rewrite <- E. exact (setter_scheme_loop v []).
Qed.

(* the scheme the scan returns is the lower-cased text before the first ':' *)
Lemma scheme_scan_text t : forall buf s r, scheme_scan buf t = Some (s, r) ->
  s = buf ++ map to_lower (take_until_colon t).
Proof.
  induction t as [|c t IH]; intros buf s r H; [discriminate H|].
  cbn [scheme_scan] in H. cbn [take_until_colon]. destruct (is_scheme_cp c) eqn:Ec.
  - assert (c =? 58 = false) as E58.
    { destruct (c =? 58) eqn:E; [|reflexivity]. apply N.eqb_eq in E. subst c. discriminate Ec. }
    rewrite E58. cbn [map]. rewrite (IH _ _ _ H), <- app_assoc. reflexivity.
  - destruct (c =? 58); [|discriminate H]. inversion H; subst. cbn [map]. symmetry. apply app_nil_r.
Qed.

Lemma take_until_colon_snoc a : take_until_colon (a ++ [58]) = take_until_colon a.
Proof.
  induction a as [|x a IH]; [reflexivity|]. cbn [app take_until_colon]. rewrite IH. reflexivity.
Qed.

Lemma spec_scheme_text v s r : spec_scheme (notnl v ++ [58]) = Some (s, r) ->
  s = map to_lower (take_until_colon (no_tnl v)).
Proof.
  unfold spec_scheme. intros H. change (no_tnl v) with (notnl v).
  destruct (notnl v ++ [58]) as [|c t] eqn:E; [discriminate H|].
  destruct (is_alpha c); [|discriminate H]. rewrite <- E in H.
  rewrite (scheme_scan_text _ _ _ _ H), take_until_colon_snoc. reflexivity.
Qed.

(* scheme classes on both sides *)
Lemma file_test_same s : st_is_file (scheme_type_of s) = list_eqb s str_file.
Proof.
  change str_file with s_file. unfold scheme_type_of.
  destruct (list_eqb s s_http) eqn:E1; [apply list_eqb_spec in E1; subst; reflexivity|].
  destruct (list_eqb s s_https) eqn:E2; [apply list_eqb_spec in E2; subst; reflexivity|].
  destruct (list_eqb s s_ws) eqn:E3; [apply list_eqb_spec in E3; subst; reflexivity|].
  destruct (list_eqb s s_wss) eqn:E4; [apply list_eqb_spec in E4; subst; reflexivity|].
  destruct (list_eqb s s_ftp) eqn:E5; [apply list_eqb_spec in E5; subst; reflexivity|].
  cbn [orb]. destruct (list_eqb s s_file); reflexivity.
Qed.

(* Url::set_scheme, evaluated *)
Lemma set_scheme_eval dbg u sch new rem old : wf_b u = true ->
  parse_scheme CSetter sch = Some (new, rem) -> scheme u = Some old ->
  Setters.set_scheme dbg u sch =
  (let nst := scheme_type_of new in
   let ost := scheme_type_of old in
   if (st_is_special nst && negb (st_is_special ost)) || (negb (st_is_special nst) && st_is_special ost)
      || (st_is_file nst && has_authority_b u)
   then Some (u, SErrUnit)
   else if negb (inp_is_empty rem) || (negb (has_host u) && st_is_special nst)
   then Some (u, SErrUnit)
   else r <- Setters.set_port dbg (with_scheme u new) (port u) ;; Some (fst r, SOk)).
Proof.
  intros W Eps Es. unfold Setters.set_scheme, input_new_no_trim. rewrite Eps.
  unfold u_scheme_type. rewrite Es. cbn [bindo]. rewrite (has_authority_eval dbg u W). cbn [bindo]. cbn zeta.
  match goal with |- context [if ?c then Some (u, SErrUnit) else _] => destruct c eqn:C1 end; [reflexivity|].
  match goal with |- context [if ?c then Some (u, SErrUnit) else _] => destruct c eqn:C2 end; [reflexivity|].
  destruct (wf_scheme_facts u W) as (Hse & Hcolon & Hselt).
  pose proof (wf_se_lt_ps u W) as Hps. pose proof (path_start_le_len u W) as Hpl.
  destruct (wf_tail_offsets_ge u (path_start u) W ltac:(lia)) as [Gq Gf].
  assert (scheme_end u <= username_end u /\ scheme_end u <= host_start u /\ scheme_end u <= host_end u) as (G1 & G2 & G3).
  { destruct (has_authority_b u) eqn:Ha.
    - pose proof (wf_auth_facts u W Ha) as F. pose proof (af_ue F); pose proof (af_hs F); pose proof (af_he F). lia.
    - pose proof (wf_noauth_facts u W Ha) as F. rewrite (nf_ue F), (nf_hs F), (nf_he F). lia. }
  rewrite !adjust_ok by lia. rewrite !adjust_opt_ok by (destruct (query_start u), (fragment_start u); try exact I; lia).
  cbn [bindo]. unfold u_slice_from. rewrite slice_from_o_some by lia. cbn [bindo].
  match goal with |- context [Setters.set_port dbg ?X _] => change X with (with_scheme u new) end.
  reflexivity.
Qed.

Lemma wf_offsets_ge_scheme u : wf_b u = true ->
  scheme_end u <= username_end u /\ scheme_end u <= host_start u /\ scheme_end u < path_start u.
Proof.
  intros W. pose proof (wf_se_lt_ps u W) as Hps.
  destruct (has_authority_b u) eqn:Ha.
  - pose proof (wf_auth_facts u W Ha) as F. pose proof (af_ue F); pose proof (af_hs F). lia.
  - pose proof (wf_noauth_facts u W Ha) as F. rewrite (nf_ue F), (nf_hs F). lia.
Qed.

Lemma set_port_same su : Whatwg.set_port su (su_port su) = su.
Proof. destruct su; reflexivity. Qed.

Lemma set_scheme_same su : Whatwg.set_scheme su (su_scheme su) = su.
Proof. destruct su; reflexivity. Qed.

Section Proto.
Variable dbg : bool.
Variable shs : spec_host -> list N.

Notation corr := (corr dbg shs).

(* the scheme text of a related pair is replaced on both sides *)
Lemma corr_with_scheme u su new : corr u su ->
  (exists c r, new = c :: r /\ is_alpha c = true) -> forallb scheme_char new = true ->
  corr (with_scheme u new) (Whatwg.set_scheme su new).
Proof.
  intros C Hhead Hchars. pose proof (co_wf _ _ _ _ C) as W. pose proof (co_ht _ _ _ _ C) as HT.
  pose proof (ws_wf u new W Hhead Hchars) as W1.
  pose proof (ws_back dbg u new W Hhead Hchars) as (B1 & B2 & B3).
  pose proof (ws_has_authority u new) as Ha1.
  destruct (wf_offsets_ge_scheme u W) as (G1 & G2 & G3).
  set (u1 := with_scheme u new) in *.
  constructor; cbn [Whatwg.set_scheme su_scheme su_username su_password su_host su_port su_path su_query su_fragment].
  - exact W1.
  - exact (ws_host_text_ok u new W HT).
  - exact (ws_scheme u new W Hhead Hchars).
  - rewrite <- (co_user _ _ _ _ C). exact (ws_username dbg u new W Hhead Hchars).
  - rewrite <- (co_pass _ _ _ _ C). exact (ws_password dbg u new W Hhead Hchars).
  - rewrite <- (co_host _ _ _ _ C). unfold u1. rewrite (ws_host_str u new W Hhead Hchars). reflexivity.
  - change (has_host u1) with (has_host u). exact (co_hh _ _ _ _ C).
  - rewrite Ha1. exact (co_auth _ _ _ _ C).
  - rewrite Ha1. change (username_end u1) with (shift (scheme_end u) (nlen new) (username_end u)).
    change (host_start u1) with (shift (scheme_end u) (nlen new) (host_start u)).
    replace (shift (scheme_end u) (nlen new) (username_end u) =? shift (scheme_end u) (nlen new) (host_start u))
      with (username_end u =? host_start u) by (unfold shift; lia).
    exact (co_at _ _ _ _ C).
  - exact (co_port _ _ _ _ C).
  - rewrite B1. exact (co_path _ _ _ _ C).
  - rewrite B2. exact (co_query _ _ _ _ C).
  - rewrite B3. exact (co_frag _ _ _ _ C).
  - rewrite Ha1. change (path_start u1) with (shift (scheme_end u) (nlen new) (path_start u)).
    change (scheme_end u1) with (nlen new).
    replace (shift (scheme_end u) (nlen new) (path_start u) =? nlen new + 3)
      with (path_start u =? scheme_end u + 3) by (unfold shift; lia).
    exact (co_marker _ _ _ _ C).
  - pose proof (co_path _ _ _ _ C) as Ept.
    assert (path u1 = Some (serialize_path su)) as Ept1 by (rewrite B1; exact Ept).
    rewrite (is_opaque_by_path u1 _ W1 Ept1), Ha1.
    change (path_start u1) with (shift (scheme_end u) (nlen new) (path_start u)).
    change (scheme_end u1) with (nlen new).
    replace (shift (scheme_end u) (nlen new) (path_start u) =? nlen new + 1)
      with (path_start u =? scheme_end u + 1) by (unfold shift; lia).
    rewrite <- (is_opaque_by_path u _ W Ept). exact (co_opaque _ _ _ _ C).
  - exact (co_uclean _ _ _ _ C).
Qed.

(* the port is re-normalised against the new scheme: `let _ = self.set_port(previous_port)` *)
Lemma corr_renormalise u1 su1 : corr u1 su1 -> sane su1 ->
  exists r, Setters.set_port dbg u1 (port u1) = Some r /\ corr (fst r) (renorm su1).
Proof.
  intros C S. pose proof (co_wf _ _ _ _ C) as W. unfold renorm.
  unfold Setters.set_port. rewrite (corr_cannot_have dbg shs u1 su1 C).
  destruct (cannot_have_username_password_port su1) eqn:Ecs; cbn [bindo].
  - eexists. split; [reflexivity|]. cbn [fst].
    destruct (sa_cannot _ S Ecs) as [Ep _]. rewrite Ep. exact C.
  - destruct (chcp_eval u1 W) as (c & Ec & Hc). rewrite (corr_cannot_have dbg shs u1 su1 C), Ecs in Ec.
    inversion Ec; subst c. specialize (Hc eq_refl).
    rewrite (co_scheme _ _ _ _ C). cbn [bindo]. rewrite (co_port _ _ _ _ C).
    set (p' := match su_port su1 with
               | Some x => if opt_eqb (su_port su1) (default_port (su_scheme su1)) then None else Some x
               | None => None end).
    assert (match p' with Some x => x <= 65535 | None => True end) as Hp.
    { pose proof (af_port (wf_auth_facts u1 W (has_host_authority u1 W Hc))) as P.
      rewrite (co_port _ _ _ _ C) in P. unfold p'. destruct (su_port su1) as [x|]; [|exact I].
      destruct (opt_eqb (Some x) (default_port (su_scheme su1))); [exact I | tauto]. }
    destruct (corr_port dbg shs u1 su1 p' C Hc Hp) as (u2 & E & C2). rewrite E. cbn [bindo].
    eexists. split; [reflexivity|]. cbn [fst].
    replace (match su_port su1 with
             | Some p => if port_is_default (su_scheme su1) p then Whatwg.set_port su1 None else su1
             | None => su1 end) with (Whatwg.set_port su1 p'); [exact C2|].
    unfold p', port_is_default. rewrite <- default_ports_are_the_standards.
    destruct (su_port su1) as [x|] eqn:Ex.
    + destruct (default_port (su_scheme su1)) as [d|]; cbn [opt_eqb].
      * rewrite (N.eqb_sym d x). destruct (x =? d); [reflexivity|]. rewrite <- Ex. apply set_port_same.
      * rewrite <- Ex. apply set_port_same.
    + rewrite <- Ex. apply set_port_same.
Qed.

(* the change is carried out on both sides *)
Lemma protocol_accept u su new rem x : corr u su -> sane su ->
  parse_scheme CSetter x = Some (new, rem) -> proto_refuses su new = false ->
  exists u', option_map fst (r <- Setters.set_port dbg (with_scheme u new) (port u) ;; Some (fst r, SOk)) = Some u'
    /\ corr u' (renorm (Whatwg.set_scheme su new)).
Proof.
  intros C S Eps R.
  pose proof (corr_with_scheme u su new C (parse_scheme_head _ _ _ _ Eps) (parse_scheme_chars _ _ _ _ Eps)) as C1.
  destruct (corr_renormalise _ _ C1 (set_scheme_sane su new S R)) as (r & E & C2).
  change (port u) with (port (with_scheme u new)). rewrite E. cbn [bindo option_map fst].
  eexists. split; [reflexivity | exact C2].
Qed.

End Proto.

(* the accept / refuse decision of Url::set_scheme (c1, then c2) against steps 2.1.1 - 2.1.4 of the
   scheme state (R), on booleans: a, b = old / new scheme is special; fo, fn = old / new scheme is
   "file"; hn, he = host null / empty; cr, po = credentials / port present.  The hypotheses are the
   invariants `sane` and "outside class 6". *)
Lemma proto_bool a b fo fn hn he cr po :
  (fo = true -> a = true) -> (fn = true -> b = true) ->
  (hn || he || fo = true -> po = false /\ cr = false) ->
  (a = true -> hn = false /\ (fo = false -> he = false)) ->
  (a = true -> fo = false -> fn = false) ->
  let c1 := (b && negb a) || (negb b && a) || (fn && negb hn) in
  let c2 := negb (negb (hn || he)) && b in
  let R := (a && negb b) || (negb a && b) || ((cr || po) && fn) || (fo && he) in
  (c1 = false -> c2 = false -> R = false)
  /\ (c1 = true \/ c2 = true -> R = true \/ (fo = true /\ fn = true)).
Proof.
  intros H1 H2 H3 H4 H5. cbn zeta.
  destruct a, b, fo, fn, hn, he, cr, po; cbn [andb orb negb] in *; intuition (try discriminate).
Qed.

Lemma opt_is_some_not_null (h : option spec_host) : opt_is_some h = negb (host_is_null h).
Proof. destruct h; reflexivity. Qed.

Section ProtoStep.
Variable dbg : bool.
Variable shp : bool -> list N -> option spec_host.
Variable shs : spec_host -> list N.

Notation corr := (corr dbg shs).

Theorem protocol_step u su v : corr u su -> sane su -> known_c07 u QProtocol v = 0 ->
  exists u' su', option_map fst (q_set_protocol dbg u v) = Some u' /\ spec_step shp QProtocol su v = Some su'
    /\ corr u' su' /\ sane su'.
Proof.
  intros C S Hk. pose proof (co_wf _ _ _ _ C) as W.
  unfold spec_step. cbn [setter_of_q]. rewrite spec_protocol_closed.
  unfold q_set_protocol. rewrite (protocol_value_cut v).
  pose proof (setter_scheme_bridge v) as K.
  destruct (parse_scheme CSetter (take_until_colon v)) as [[new rem]|] eqn:Eps.
  2:{ destruct (spec_scheme (notnl v ++ [58])) as [[s' r']|]; [contradiction|].
      unfold Setters.set_scheme, input_new_no_trim. rewrite Eps. cbn [option_map fst].
      exists u, su. split; [reflexivity|]. split; [reflexivity|]. split; [exact C | exact S]. }
  destruct (spec_scheme (notnl v ++ [58])) as [[s' r']|] eqn:Ess; [|contradiction].
  destruct K as [<- ->].
  pose proof (spec_scheme_text v new r' Ess) as Etext.
  rewrite (set_scheme_eval dbg u _ new [] (su_scheme su) W Eps (co_scheme _ _ _ _ C)). cbn zeta.
  change (inp_is_empty []) with true. cbn [negb orb].
  rewrite !special_schemes_are_the_standards, !file_test_same.
  rewrite (co_auth _ _ _ _ C), (co_hh _ _ _ _ C), opt_is_some_not_null.
  (* outside class 6 *)
  assert (is_special_scheme (su_scheme su) = true -> list_eqb (su_scheme su) str_file = false ->
          list_eqb new str_file = false) as K6.
  { intros Hsp Hnf. destruct (list_eqb new str_file) eqn:Enf; [exfalso|reflexivity].
    unfold known_c07 in Hk. unfold u_scheme_or_empty in Hk. rewrite (co_scheme _ _ _ _ C) in Hk.
    rewrite <- Etext in Hk. change s_file with str_file in Hk.
    rewrite Enf, special_schemes_are_the_standards, Hsp, Hnf in Hk. discriminate Hk. }
  pose proof (proto_bool (is_special_scheme (su_scheme su)) (is_special_scheme new)
                (list_eqb (su_scheme su) str_file) (list_eqb new str_file)
                (host_is_null (su_host su)) (host_is_empty (su_host su))
                (includes_credentials su) (opt_is_some (su_port su))
                (file_is_special _) (file_is_special _)) as PB.
  assert (host_is_null (su_host su) || host_is_empty (su_host su) || list_eqb (su_scheme su) str_file = true ->
          opt_is_some (su_port su) = false /\ includes_credentials su = false) as H3.
  { intros Hc. destruct (sa_cannot _ S Hc) as [Ep Ecr]. rewrite Ep. split; [reflexivity | exact Ecr]. }
  specialize (PB H3 (sa_special _ S) K6). cbn zeta in PB. destruct PB as [PB0 PB1].
  fold (proto_refuses su new) in PB0, PB1.
  assert (forall A : Type, forall (x y : A) (c1 c2 : bool),
            (if c1 then x else if c2 then x else y) = if c1 || c2 then x else y) as Hif
    by (intros A x y [|] [|]; reflexivity).
  rewrite Hif.
  match goal with |- context [if ?c1 || ?c2 then _ else _] =>
    destruct c1 eqn:E1; [|destruct c2 eqn:E2] end; cbn [orb].
  - cbn [option_map fst]. exists u, (proto_decide su new). split; [reflexivity|]. split; [reflexivity|].
    split; [|exact (proto_decide_sane su new S)].
    unfold proto_decide. destruct (PB1 (or_introl eq_refl)) as [-> | [Eof Enf]]; [exact C|].
    destruct (proto_refuses su new); [exact C|].
    destruct (H3 ltac:(rewrite Eof; apply orb_true_r)) as [Ep _].
    apply list_eqb_spec in Eof. apply list_eqb_spec in Enf. rewrite Enf, <- Eof, set_scheme_same.
    unfold renorm. destruct (su_port su); [discriminate Ep | exact C].
  - cbn [option_map fst]. exists u, (proto_decide su new). split; [reflexivity|]. split; [reflexivity|].
    split; [|exact (proto_decide_sane su new S)].
    unfold proto_decide. destruct (PB1 (or_intror eq_refl)) as [-> | [Eof Enf]]; [exact C|].
    destruct (proto_refuses su new); [exact C|].
    destruct (H3 ltac:(rewrite Eof; apply orb_true_r)) as [Ep _].
    apply list_eqb_spec in Eof. apply list_eqb_spec in Enf. rewrite Enf, <- Eof, set_scheme_same.
    unfold renorm. destruct (su_port su); [discriminate Ep | exact C].
  - specialize (PB0 eq_refl eq_refl).
    destruct (protocol_accept dbg shs u su new [] _ C S Eps PB0) as (u' & E & C').
    exists u', (proto_decide su new). split; [exact E|]. split; [reflexivity|].
    split; [|exact (proto_decide_sane su new S)].
    unfold proto_decide. rewrite PB0. exact C'.
Qed.

End ProtoStep.
