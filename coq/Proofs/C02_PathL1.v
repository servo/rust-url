(* Proofs/C02_PathL1.v - L1 for the path state (URL parser context): whatever the input, the path state leaves
   pre "/" seg "/" ... "/" last   with every segment clean for the PATH set, free of separators, and not a dot
   segment in any spelling.  Section Machine proves it for a scheme class st and a segment predicate G (what the end
   of a segment does: finish_inv_gen, for every class; the loop invariant: loop_inv_gen, for the classes other than
   file); the non-special instance (G := good_seg) follows, the special one is in C02_PathSp.v, the file one, with
   its own loop invariant, in C02_FileL1.v. *)
From RU Require Import Base.Prelude Base.Utf8 Base.Utf8Facts Gen.Tables Model.PercentEncoding Model.HostT
  Model.UrlRecord Model.Parser Model.WF Proofs.ListN Proofs.C02_Enc Proofs.C02_Parts Proofs.C02_Opaque Proofs.C02_Path.

Ltac len_lia := unfold nlen in *; rewrite ?app_length in *; cbn [length] in *; lia.

Definition no_byte (b : N) (t : list N) : bool := forallb (fun c => negb (c =? b)) t.

Lemma rfind_aux_none b t : forall i last, no_byte b t = true -> rfind_aux b t i last = last.
Proof.
  induction t as [|c t IH]; intros i last H; [reflexivity|].
  cbn [no_byte forallb] in H. apply andb_true_iff in H. destruct H as [H1 H2].
  cbn [rfind_aux]. apply negb_true_iff in H1. rewrite H1. apply IH. exact H2.
Qed.

Lemma rfind_none b t : no_byte b t = true -> rfind b t = None.
Proof. intros H. unfold rfind. apply rfind_aux_none. exact H. Qed.

Lemma rfind_aux_app_last b x : forall t i last, no_byte b t = true ->
  rfind_aux b (x ++ b :: t) i last = Some (i + nlen x).
Proof.
  induction x as [|c x IH]; intros t i last H.
  - cbn [app rfind_aux]. rewrite N.eqb_refl. rewrite rfind_aux_none by exact H. f_equal. unfold nlen. cbn. lia.
  - cbn [app rfind_aux]. rewrite IH by exact H. f_equal. rewrite nlen_cons. lia.
Qed.

Lemma rfind_app_last b x t : no_byte b t = true -> rfind b (x ++ b :: t) = Some (nlen x).
Proof. intros H. unfold rfind. rewrite rfind_aux_app_last by exact H. f_equal. Qed.

Lemma rfind_lt b l p : rfind b l = Some p -> p < nlen l.
Proof.
  unfold rfind.
  assert (forall l i last q, rfind_aux b l i last = Some q ->
          (last = Some q) \/ (i <= q /\ q < i + nlen l)) as G.
  { clear. induction l as [|c l IH]; intros i last q H; cbn [rfind_aux] in H; [left; exact H|].
    apply IH in H. rewrite nlen_cons. destruct H as [H|H]; [|right; lia].
    destruct (c =? b); [inversion H; subst; right; lia | left; exact H]. }
  intros H. apply G in H. destruct H as [H|H]; [discriminate | lia].
Qed.

(* the shape of the serialization during the path state *)
Section Shape.
Variable pre : list N.

Definition Bs (segs : list (list N)) : list N := (pre ++ [47]) ++ segs_text segs.

Lemma segs_text_snoc segs t : segs_text (segs ++ [t]) = segs_text segs ++ t ++ [47].
Proof. unfold segs_text. rewrite map_app, concat_app. cbn [map concat]. rewrite app_nil_r. reflexivity. Qed.

Lemma Bs_snoc segs t : Bs (segs ++ [t]) = Bs segs ++ t ++ [47].
Proof. unfold Bs. rewrite segs_text_snoc. rewrite <- !app_assoc. reflexivity. Qed.

Lemma Bs_app a b : Bs (a ++ b) = Bs a ++ segs_text b.
Proof. unfold Bs, segs_text. rewrite map_app, concat_app. apply app_assoc. Qed.

Lemma Bs_ends segs : exists X, Bs segs = X ++ [47].
Proof.
  destruct (rev segs) as [|t r] eqn:E.
  - assert (segs = []) as -> by (rewrite <- (rev_involutive segs), E; reflexivity). exists pre. unfold Bs. cbn. rewrite app_nil_r. reflexivity.
  - assert (segs = rev r ++ [t]) as -> by (rewrite <- (rev_involutive segs), E; reflexivity).
    exists (Bs (rev r) ++ t). rewrite Bs_snoc. rewrite app_assoc. reflexivity.
Qed.

Lemma Bs_len_ge segs : nlen pre + 1 <= nlen (Bs segs).
Proof. unfold Bs, nlen. rewrite !app_length. cbn [length]. lia. Qed.

Lemma forallb_snoc {A} (f : A -> bool) l x : forallb f (l ++ [x]) = forallb f l && f x.
Proof. rewrite forallb_app. cbn [forallb]. rewrite andb_true_r. reflexivity. Qed.

Lemma no_slash_no_byte t : no_slash t = no_byte 47 t.
Proof. reflexivity. Qed.

Lemma nnth_app_last x c : nnth (x ++ [c]) (nlen x) = Some c.
Proof. unfold nnth, nlen. rewrite Nat2N.id. rewrite nth_error_app2 by lia. rewrite Nat.sub_diag. reflexivity. Qed.

Lemma nnth_app_l x y i : i < nlen x -> nnth (x ++ y) i = nnth x i.
Proof. unfold nnth, nlen. intros H. apply nth_error_app1. lia. Qed.

End Shape.

Lemma nwdl_slash X : is_normalized_wdl (47 :: X) = false.
Proof. destruct X as [|b [|c X]]; reflexivity. Qed.

Lemma is_wdl_shape s : is_wdl s = true -> exists a b, s = [a; b] /\ is_alpha a = true.
Proof.
  unfold is_wdl, starts_with_wdl. destruct s as [|a [|b [|c r]]]; cbn [length Nat.eqb andb]; try discriminate.
  intros H. exists a, b. split; [reflexivity|]. apply andb_true_iff in H. destruct H as [H _].
  apply andb_true_iff in H. tauto.
Qed.

Lemma nwdl_last_wdl t : is_normalized_wdl t = true -> starts_with_wdl (t ++ [47]) = true.
Proof.
  unfold is_normalized_wdl, is_wdl, starts_with_wdl.
  destruct t as [|a [|b [|c r]]]; cbn [length Nat.eqb andb app]; try discriminate.
  intros H. apply andb_true_iff in H. destruct H as [H _]. rewrite andb_true_r in H. rewrite H. reflexivity.
Qed.

Lemma nosep_ns s : nosep STNotSpecial s = no_slash s.
Proof. unfold nosep, no_slash. induction s as [|c s IH]; [reflexivity|]. cbn [forallb]. rewrite sep_ns, IH. reflexivity. Qed.

Lemma nosep_special st s : st_is_special st = true -> nosep st s = no_slash s && no_byte 92 s.
Proof.
  intros H. unfold nosep, no_slash, no_byte. induction s as [|c s IH]; [reflexivity|]. cbn [forallb].
  rewrite (sep_special st c H), IH. destruct (c =? 47); destruct (c =? 92); cbn [negb orb andb]; try reflexivity.
  rewrite andb_false_r. reflexivity.
Qed.

Lemma nosep_app st a b : nosep st (a ++ b) = nosep st a && nosep st b.
Proof. apply forallb_app. Qed.

(* the path state on  pre "/" seg "/" ... "/" cur , any scheme class *)
Section Machine.
Variable pre : list N.
Variable dbg : bool.
Variable st : scheme_type.
Notation ps := (nlen pre).
Notation BS := (Bs pre).
Notation loop := (parse_path_loop dbg CUrlParser st ps).

(* the closed part ends with the '/' that ends its last segment, or with the one that opens the path *)
Lemma Bs_last_slash segs : exists Y, BS segs = (pre ++ Y) ++ [47] /\ nlen (BS segs) = ps + nlen Y + 1.
Proof.
  assert (exists Y, 47 :: segs_text segs = Y ++ [47]) as [Y E].
  { destruct segs as [|t segs _] using rev_ind; [exists []; reflexivity|].
    exists (47 :: segs_text segs ++ t). rewrite segs_text_snoc. cbn [app]. rewrite <- app_assoc. reflexivity. }
  exists Y. unfold Bs. rewrite <- !app_assoc. cbn [app]. rewrite E. split; [reflexivity|].
  rewrite !nlen_app. change (nlen [47]) with 1. lia.
Qed.

(* popping the last segment of a path: a normalised drive letter of a file URL stays *)
Lemma shorten_Bs segs t : no_slash t = true ->
  shorten_path st ps (BS segs ++ t) = POk (if st_is_file st && is_normalized_wdl t then BS segs ++ t else BS segs).
Proof.
  intros Ht. destruct (Bs_last_slash segs) as (Y & E & EL).
  unfold shorten_path, pop_path. rewrite nlen_app.
  replace (nlen (BS segs) + nlen t =? ps) with false by lia. replace (ps <? nlen (BS segs) + nlen t) with true by lia.
  assert (nskipn ps (BS segs ++ t) = 47 :: segs_text segs ++ t) as ->.
  { unfold Bs. rewrite <- !app_assoc. apply nskipn_app_len. }
  rewrite nwdl_slash, andb_false_r.
  assert (47 :: segs_text segs ++ t = Y ++ 47 :: t) as ->.
  { apply (app_inv_head pre). rewrite E in *. unfold Bs in E. rewrite <- !app_assoc in E. cbn [app] in E.
    apply app_inv_head in E. change (47 :: segs_text segs ++ t) with ((47 :: segs_text segs) ++ t). rewrite E, <- app_assoc. reflexivity. }
  rewrite (rfind_app_last 47 Y t Ht). replace (ps + nlen Y + 1) with (nlen (BS segs)) by lia.
  rewrite nskipn_app_len. unfold truncate. rewrite nfirstn_app_len.
  destruct (st_is_file st && is_normalized_wdl t); reflexivity.
Qed.

Lemma shorten_Bs_closed segs : shorten_path st ps (BS segs) = POk (BS segs).
Proof.
  pose proof (shorten_Bs segs [] eq_refl) as H. rewrite app_nil_r in H. change (is_normalized_wdl []) with false in H.
  rewrite andb_false_r in H. exact H.
Qed.

Lemma lscbr_Bs_nil : last_slash_can_be_removed (BS []) ps = false.
Proof.
  unfold last_slash_can_be_removed, Bs. cbn [segs_text map concat]. rewrite app_nil_r, nlen_app.
  replace (ps + nlen [47] - 1) with ps by (change (nlen [47]) with 1; lia).
  rewrite nfirstn_app_len. destruct (rfind 47 pre) as [p|] eqn:Ep; [|reflexivity].
  apply rfind_lt in Ep. replace (ps <=? p) with false by lia. reflexivity.
Qed.

Lemma Bs_cut_last segs t : nfirstn (nlen (BS (segs ++ [t])) - 1) (BS (segs ++ [t])) = BS segs ++ t.
Proof.
  rewrite Bs_snoc, app_assoc. rewrite (nlen_app _ [47]). change (nlen [47]) with 1.
  replace (nlen (BS segs ++ t) + 1 - 1) with (nlen (BS segs ++ t)) by lia. apply nfirstn_app_len.
Qed.

Lemma lscbr_Bs_snoc segs t : no_slash t = true ->
  last_slash_can_be_removed (BS (segs ++ [t])) ps = negb (path_starts_with_wdl (47 :: t ++ [47])).
Proof.
  intros Ht. destruct (Bs_last_slash segs) as (Y & E & EL).
  unfold last_slash_can_be_removed. rewrite Bs_cut_last. rewrite E, <- app_assoc. cbn [app].
  rewrite (rfind_app_last 47 (pre ++ Y) t Ht). rewrite nlen_app. replace (ps <=? ps + nlen Y) with true by lia.
  rewrite <- nlen_app. rewrite Bs_snoc, E, <- !app_assoc. rewrite app_assoc, nskipn_app_len. reflexivity.
Qed.

Definition pend_sep_ok (pend : list N) : Prop := usv_list pend /\ nosep st pend = true.

(* flushing the pending characters behind the open segment *)
Lemma pend_flush_gen cur pend : clean T_PATH cur = true -> nosep st cur = true -> pend_sep_ok pend ->
  clean T_PATH (cur ++ encode T_PATH (utf8_encode (rev pend))) = true
  /\ nosep st (cur ++ encode T_PATH (utf8_encode (rev pend))) = true.
Proof.
  intros Hc Hn [Hu Hp]. split.
  - rewrite clean_app, Hc. cbn [andb]. apply encode_is_clean; [exact stable_PATH|].
    apply utf8_encode_bytes. apply usv_rev. exact Hu.
  - rewrite nosep_app, Hn. cbn [andb].
    apply encode_utf8_forallb; [reflexivity | | apply usv_rev; exact Hu|].
    + intros d Hd. pose proof (hex_upper_ge d Hd). unfold sep.
      replace (hex_upper d =? 47) with false by lia. replace (hex_upper d =? 92) with false by lia. reflexivity.
    + apply Forall_forall. intros c Hin _. unfold nosep in Hp. rewrite forallb_forall in Hp.
      apply Hp. apply in_rev. exact Hin.
Qed.

(* a segment predicate that the end of a segment maintains *)
Variable G : list N -> bool.
Hypothesis G_nil : G [] = true.
Hypothesis G_no_slash : forall s, G s = true -> no_slash s = true.
Hypothesis G_seg : forall s, clean T_PATH s = true -> nosep st s = true ->
  is_single_dot s = false -> is_double_dot s = false -> G s = true.
Hypothesis G_drive : st_is_file st = true -> forall a, is_alpha a = true -> G [a; 58] = true.

(* what finish_segment does to  BS segs ++ cur [++ "/"]: dot segments with the drive-letter refusals of pop_path and
   last_slash_can_be_removed; a drive letter as first segment of a file URL is normalised and drops the host *)
Lemma finish_inv_gen segs cur (ews : bool) hh :
  forallb G segs = true -> clean T_PATH cur = true -> nosep st cur = true ->
  exists segs' last' hh',
    finish_segment dbg st ps (BS segs ++ cur ++ (if ews then [47] else [])) (nlen (BS segs)) ews hh
    = POk (BS segs' ++ last', hh')
    /\ forallb G segs' = true /\ G last' = true /\ (ews = true -> last' = [])
    /\ (hh' = hh \/ st_is_file st = true /\ hh' = false).
Proof.
  intros Hsegs Hc Hns.
  set (s1 := BS segs ++ cur ++ (if ews then [47] else [])).
  assert (slice_o s1 (nlen (BS segs)) (if ews then nlen s1 - 1 else nlen s1) = Some cur) as Hslice.
  { replace (if ews then nlen s1 - 1 else nlen s1) with (nlen (BS segs) + nlen cur); [unfold s1; apply slice_mid|].
    unfold s1. rewrite !nlen_app. destruct ews; [change (nlen [47]) with 1 | change (nlen []) with 0]; lia. }
  assert (truncate s1 (nlen (BS segs)) = BS segs) as Htr by (unfold truncate, s1; apply nfirstn_app_len).
  destruct (Bs_last_slash segs) as (X & EX & ELX).
  assert (ends_with_byte 47 (BS segs) = true) as Hends by (rewrite EX; apply ends_with_byte_snoc).
  assert (forall segs', forallb G segs' = true ->
            exists segs'' last' hh', POk (BS segs', hh) = POk (BS segs'' ++ last', hh')
              /\ forallb G segs'' = true /\ G last' = true /\ (ews = true -> last' = [])
              /\ (hh' = hh \/ st_is_file st = true /\ hh' = false)) as Hclosed.
  { intros segs' H. exists segs', [], hh. rewrite app_nil_r. repeat split; try assumption. left. reflexivity. }
  unfold finish_segment. rewrite Hslice. cbn [of_option pbind].
  destruct (is_double_dot cur) eqn:Edd.
  - (* double dot: the last closed segment is popped, unless it looks like a drive letter *)
    assert ((if dbg then match (if 1 <=? nlen (BS segs) then nnth s1 (nlen (BS segs) - 1) else None) with
                         | Some b => passert (b =? 47) | None => PPanic end else POk tt) = POk tt) as ->.
    { destruct dbg; [|reflexivity]. replace (1 <=? nlen (BS segs)) with true by lia.
      unfold s1. rewrite nnth_app_l by lia. rewrite ELX, EX. replace (ps + nlen X + 1 - 1) with (nlen (pre ++ X)) by (rewrite nlen_app; lia).
      rewrite nnth_app_last. reflexivity. }
    cbn [pbind]. rewrite Htr, Hends. cbn [andb].
    assert (forall segs', ends_with_byte 47 (BS segs') = true) as He.
    { intros segs'. destruct (Bs_last_slash segs') as (X' & -> & _). apply ends_with_byte_snoc. }
    clear Hslice Htr Hends EX ELX. subst s1.
    destruct segs as [|t segs0 _] using rev_ind.
    + rewrite lscbr_Bs_nil, shorten_Bs_closed. cbn [pbind]. rewrite He. cbn [negb]. rewrite andb_false_r.
      apply Hclosed. reflexivity.
    + rewrite forallb_snoc in Hsegs. apply andb_true_iff in Hsegs. destruct Hsegs as [Hsegs0 Ht].
      pose proof (G_no_slash t Ht) as Htn. rewrite (lscbr_Bs_snoc segs0 t Htn).
      destruct (path_starts_with_wdl (47 :: t ++ [47])) eqn:Ew; cbn [negb].
      * rewrite shorten_Bs_closed. cbn [pbind]. rewrite He. cbn [negb]. rewrite andb_false_r. apply Hclosed.
        rewrite forallb_snoc, Hsegs0, Ht. reflexivity.
      * rewrite Bs_cut_last, (shorten_Bs segs0 t Htn).
        assert (is_normalized_wdl t = false) as ->.
        { destruct (is_normalized_wdl t) eqn:E; [|reflexivity]. unfold path_starts_with_wdl in Ew.
          rewrite (nwdl_last_wdl t E) in Ew. discriminate Ew. }
        rewrite andb_false_r. cbn [pbind]. rewrite He. cbn [negb]. rewrite andb_false_r. apply Hclosed. exact Hsegs0.
  - destruct (is_single_dot cur) eqn:Esd.
    + rewrite Htr, Hends. apply Hclosed. exact Hsegs.
    + pose proof (G_seg cur Hc Hns Esd Edd) as Hg.
      replace (nlen (BS segs) =? ps + 1) with (match segs with [] => true | _ => false end).
      2:{ unfold Bs, segs_text. destruct segs as [|s r]; cbn [map concat]; rewrite !nlen_app; change (nlen [47]) with 1;
            [change (nlen []) with 0|]; lia. }
      destruct (st_is_file st && match segs with [] => true | _ :: _ => false end && is_wdl cur) eqn:Ewd.
      * (* a drive letter as first segment of a file URL *)
        apply andb_true_iff in Ewd. destruct Ewd as [Ewd Ew]. apply andb_true_iff in Ewd. destruct Ewd as [Ef Enil].
        destruct segs as [|s0 sr]; [|discriminate Enil].
        destruct (is_wdl_shape cur Ew) as (a & b & -> & Ha). rewrite Htr. pose proof (G_drive Ef a Ha) as Hd.
        destruct ews.
        -- exists [[a; 58]], [], false. rewrite app_nil_r. split.
           ++ f_equal. f_equal. unfold Bs, segs_text. cbn [map concat app]. rewrite <- !app_assoc. reflexivity.
           ++ cbn [forallb]. rewrite Hd. repeat split; try reflexivity; try exact G_nil. right. split; [exact Ef | reflexivity].
        -- exists [], [a; 58], false. repeat split; try assumption; try discriminate. right. split; [exact Ef | reflexivity].
      * unfold s1. destruct ews.
        -- rewrite <- Bs_snoc. apply Hclosed. rewrite forallb_snoc, Hsegs, Hg. reflexivity.
        -- exists segs, cur, hh. rewrite app_nil_r. repeat split; try assumption; try discriminate. left. reflexivity.
Qed.

(* the same after the pending characters have been flushed behind the open segment *)
Lemma finish_flush_gen segs cur pend (ews : bool) hh :
  pend_sep_ok pend -> forallb G segs = true -> clean T_PATH cur = true -> nosep st cur = true ->
  exists segs' last' hh',
    finish_segment dbg st ps (push_pending CUrlParser st (BS segs ++ cur) pend ++ (if ews then [47] else []))
      (nlen (BS segs)) ews hh = POk (BS segs' ++ last', hh')
    /\ forallb G segs' = true /\ G last' = true /\ (ews = true -> last' = [])
    /\ (hh' = hh \/ st_is_file st = true /\ hh' = false).
Proof.
  intros Hp Hsegs Hc Hn. destruct (pend_flush_gen cur pend Hc Hn Hp) as [Hc' Hn'].
  rewrite push_pending_eq by (destruct Hp; assumption). rewrite <- !app_assoc.
  rewrite (app_assoc cur). exact (finish_inv_gen segs _ ews hh Hsegs Hc' Hn').
Qed.

(* the loop invariant, schemes other than file: Hnf is assumed from here on, finish_inv_gen and finish_flush_gen
   above hold of the file scheme as well *)
Hypothesis Hnf : st_is_file st = false.

Theorem loop_inv_gen l : forall segs cur pend hh s' hh' rem, usv_list l -> pend_sep_ok pend ->
  forallb G segs = true -> clean T_PATH cur = true -> nosep st cur = true ->
  loop l (BS segs ++ cur) (nlen (BS segs)) pend hh = POk (s', hh', rem) ->
  exists segs' last', s' = BS segs' ++ last' /\ forallb G segs' = true /\ G last' = true
                      /\ hh' = hh /\ rem = cbb_rest l.
Proof.
  assert (forall segs cur pend (ews : bool), pend_sep_ok pend -> forallb G segs = true -> clean T_PATH cur = true -> nosep st cur = true ->
            forall hh, exists segs' last',
              finish_segment dbg st ps (push_pending CUrlParser st (BS segs ++ cur) pend ++ (if ews then [47] else []))
                (nlen (BS segs)) ews hh = POk (BS segs' ++ last', hh)
              /\ forallb G segs' = true /\ G last' = true /\ (ews = true -> last' = [])) as Hfin.
  { intros segs cur pend ews Hp Hsegs Hc Hn hh.
    destruct (finish_flush_gen segs cur pend ews hh Hp Hsegs Hc Hn) as (segs' & last' & hh2 & Hf & G1 & G2 & G3 & [-> | [E _]]);
      [|rewrite Hnf in E; discriminate E].
    exists segs', last'. repeat split; assumption. }
  assert (forall l0 segs cur pend hh s' hh' rem, stops l0 -> pend_sep_ok pend ->
            forallb G segs = true -> clean T_PATH cur = true -> nosep st cur = true ->
            loop l0 (BS segs ++ cur) (nlen (BS segs)) pend hh = POk (s', hh', rem) ->
            exists segs' last', s' = BS segs' ++ last' /\ forallb G segs' = true /\ G last' = true
                                /\ hh' = hh /\ rem = l0) as Hend.
  { intros l0 segs cur pend hh s' hh' rem Hl Hp Hsegs Hc Hn H. rewrite loop_stop in H by exact Hl.
    destruct (Hfin segs cur pend false Hp Hsegs Hc Hn hh) as (segs' & last' & Hf & G1 & G2 & _).
    rewrite app_nil_r in Hf. rewrite Hf in H. cbn [pbind] in H. unfold file_path_fixup in H. rewrite Hnf in H.
    inversion H; subst. exists segs', last'. repeat split; assumption. }
  assert (pend_sep_ok []) as Hnil by (split; [constructor | reflexivity]).
  induction l as [|c r IH]; intros segs cur pend hh s' hh' rem Hu Hp Hsegs Hc Hn H.
  - exact (Hend [] segs cur pend hh s' hh' rem I Hp Hsegs Hc Hn H).
  - apply usv_cons in Hu. destruct Hu as [Huc Hur]. cbn [cbb_rest].
    destruct (is_tnl c) eqn:Et.
    + rewrite loop_tnl in H by exact Et. rewrite push_pending_eq in H by (destruct Hp; assumption).
      destruct (pend_flush_gen cur pend Hc Hn Hp) as [Hc' Hn']. rewrite <- app_assoc in H.
      exact (IH segs _ [] hh s' hh' rem Hur Hnil Hsegs Hc' Hn' H).
    + destruct (is_qh c) eqn:Eq; [exact (Hend (c :: r) segs cur pend hh s' hh' rem (conj Eq Et) Hp Hsegs Hc Hn H)|].
      destruct (sep st c) eqn:Es.
      * rewrite loop_sep in H by assumption.
        destruct (Hfin segs cur pend true Hp Hsegs Hc Hn hh) as (segs' & last' & Hf & G1 & G2 & G3).
        rewrite Hf in H. cbn [pbind] in H. pose proof (G3 eq_refl) as ->.
        rewrite app_nil_r in H. rewrite <- (app_nil_r (BS segs')) in H at 1.
        exact (IH segs' [] [] hh s' hh' rem Hur Hnil G1 eq_refl eq_refl H).
      * rewrite loop_plain in H; try assumption; [|unfold drive_arm; rewrite Hnf; reflexivity].
        apply (IH segs cur (c :: pend) hh s' hh' rem Hur); try assumption.
        destruct Hp as [Hp1 Hp2]. split; [apply usv_cons; split; assumption|].
        unfold nosep in *. cbn [forallb]. rewrite Es, Hp2. reflexivity.
Qed.

(* L1 for parse_path started behind  pre : the text it writes is a canonical path *)
Corollary parse_path_inv l hh s hh' rem : usv_list l ->
  parse_path dbg CUrlParser st hh ps (pre ++ [47]) l = POk (s, hh', rem) ->
  exists segs last, s = pre ++ path_text segs last /\ forallb G segs = true /\ G last = true
                    /\ hh' = hh /\ rem = cbb_rest l.
Proof.
  intros Hu H. unfold parse_path in H.
  assert (pre ++ [47] = BS [] ++ []) as EB by (unfold Bs; cbn [segs_text map concat]; rewrite !app_nil_r; reflexivity).
  rewrite EB in H. rewrite app_nil_r in H at 2.
  destruct (loop_inv_gen l [] [] [] hh s hh' rem Hu (conj (Forall_nil _) eq_refl) eq_refl eq_refl eq_refl H)
    as (segs & last & -> & G1 & G2 & G3 & G4).
  exists segs, last. unfold Bs, path_text. rewrite <- !app_assoc. repeat split; assumption.
Qed.

End Machine.

(* non-special schemes: canonical segments are the good_seg ones *)
Section LoopInv.
Variable pre : list N.
Variable dbg : bool.
Notation ps := (nlen pre).
Notation loop := (parse_path_loop dbg CUrlParser STNotSpecial ps).

Definition pend_ok (pend : list N) : Prop := usv_list pend /\ no_byte 47 pend = true.

Lemma good_seg_of_parts s : clean T_PATH s = true -> nosep STNotSpecial s = true ->
  is_single_dot s = false -> is_double_dot s = false -> good_seg s = true.
Proof. intros Hc Hn Hsd Hdd. rewrite nosep_ns in Hn. unfold good_seg. rewrite Hc, Hn, Hsd, Hdd. reflexivity. Qed.

Lemma good_seg_no_slash s : good_seg s = true -> no_slash s = true.
Proof. intros H. apply (good_seg_parts s H). Qed.

Lemma finish_inv segs cur (ews : bool) hh :
  forallb good_seg segs = true -> clean T_PATH cur = true -> no_slash cur = true ->
  exists segs' last',
    finish_segment dbg STNotSpecial ps (Bs pre segs ++ cur ++ (if ews then [47] else [])) (nlen (Bs pre segs)) ews hh
    = POk (Bs pre segs' ++ last', hh)
    /\ forallb good_seg segs' = true /\ good_seg last' = true /\ (ews = true -> last' = []).
Proof.
  intros Hsegs Hc Hns. rewrite <- nosep_ns in Hns.
  destruct (finish_inv_gen pre dbg STNotSpecial good_seg eq_refl good_seg_no_slash good_seg_of_parts
              (fun E => False_ind _ (diff_false_true E)) segs cur ews hh Hsegs Hc Hns)
    as (segs' & last' & hh' & Hf & G1 & G2 & G3 & [-> | [E _]]); [|discriminate E].
  exists segs', last'. repeat split; assumption.
Qed.

Lemma hex_not_slash d : d < 16 -> negb (hex_upper d =? 47) = true.
Proof. intros H. pose proof (hex_upper_ge d H). lia. Qed.

Lemma pend_ok_sep pend : pend_ok pend -> pend_sep_ok STNotSpecial pend.
Proof. intros [Hu Hp]. split; [exact Hu | rewrite nosep_ns; exact Hp]. Qed.

Lemma pend_flush cur pend : clean T_PATH cur = true -> no_slash cur = true -> pend_ok pend ->
  clean T_PATH (cur ++ encode T_PATH (utf8_encode (rev pend))) = true
  /\ no_slash (cur ++ encode T_PATH (utf8_encode (rev pend))) = true.
Proof.
  intros Hc Hn Hp. rewrite <- nosep_ns in Hn. rewrite <- nosep_ns. exact (pend_flush_gen STNotSpecial cur pend Hc Hn (pend_ok_sep pend Hp)).
Qed.

Lemma push_pending_shape segs cur pend : usv_list pend ->
  push_pending CUrlParser STNotSpecial (Bs pre segs ++ cur) pend
  = Bs pre segs ++ (cur ++ encode T_PATH (utf8_encode (rev pend))).
Proof. intros H. rewrite push_pending_eq by exact H. rewrite <- app_assoc. reflexivity. Qed.

Theorem loop_inv l : forall segs cur pend hh s' hh' rem, usv_list l -> pend_ok pend ->
  forallb good_seg segs = true -> clean T_PATH cur = true -> no_slash cur = true ->
  loop l (Bs pre segs ++ cur) (nlen (Bs pre segs)) pend hh = POk (s', hh', rem) ->
  exists segs' last', s' = Bs pre segs' ++ last' /\ forallb good_seg segs' = true /\ good_seg last' = true
                      /\ hh' = hh /\ rem = cbb_rest l.
Proof.
  intros segs cur pend hh s' hh' rem Hu Hp Hsegs Hc Hn. rewrite <- nosep_ns in Hn.
  exact (loop_inv_gen pre dbg STNotSpecial good_seg eq_refl good_seg_no_slash good_seg_of_parts
           (fun E => False_ind _ (diff_false_true E)) eq_refl l segs cur pend hh s' hh' rem Hu (pend_ok_sep pend Hp) Hsegs Hc Hn).
Qed.

Corollary parse_path_ns l hh s hh' rem : usv_list l ->
  parse_path dbg CUrlParser STNotSpecial hh ps (pre ++ [47]) l = POk (s, hh', rem) ->
  exists segs last, s = pre ++ path_text segs last /\ forallb good_seg segs = true /\ good_seg last = true
                    /\ hh' = hh /\ rem = cbb_rest l.
Proof.
  exact (parse_path_inv pre dbg STNotSpecial good_seg eq_refl good_seg_no_slash good_seg_of_parts
           (fun E => False_ind _ (diff_false_true E)) eq_refl l hh s hh' rem).
Qed.

End LoopInv.

(* L1 for the class: the parser's result has the canonical form *)
Section NoAuthOut.
Variable dbg : bool.
Variable hp hpo : list N -> result host.
Variable hd : host -> list N.
Variable ovr : option (list N -> list N).

Theorem parse_noauth_out input sch rem rem' u : usv_list input ->
  parse_scheme CUrlParser (input_new_trim_c0 input) = Some (sch, rem) ->
  scheme_type_of sch = STNotSpecial ->
  inp_split_prefix_str s_ss rem = None -> inp_split_prefix_char 47 rem = Some rem' ->
  parse_url dbg hp hpo hd ovr None input = POk u ->
  exists segs last q f, noauth_ok sch segs last q f /\ u = noauth_url sch (path_text segs last) q f.
Proof.
  intros Hu Hs Hns Hss H47. unfold parse_url. rewrite Hs. unfold parse_with_scheme. rewrite Hns.
  destruct (to_u32 (nlen sch)) as [se| |] eqn:Eu; cbn [pbind]; try discriminate.
  apply to_u32_inv in Eu. destruct Eu as [-> Hb0].
  destruct (parse_scheme_suffix _ _ _ _ Hs) as [pre0 Hpre].
  assert (usv_list rem) as Hur.
  { assert (usv_list (input_new_trim_c0 input)) as Ht.
    { unfold input_new_trim_c0, trim_matches. apply usv_rev.
      destruct (drop_while_spec is_c0_or_space (rev (drop_while is_c0_or_space input))) as (a & Ha & _).
      destruct (drop_while_spec is_c0_or_space input) as (a0 & Ha0 & _).
      rewrite Ha0 in Hu. apply usv_app in Hu. destruct Hu as [_ Hu].
      apply usv_rev in Hu. rewrite Ha in Hu. apply usv_app in Hu. tauto. }
    rewrite Hpre in Ht. apply usv_app in Ht. tauto. }
  assert (usv_list rem') as Hur'.
  { unfold inp_split_prefix_char in H47. destruct (inp_next rem) as [[d r]|] eqn:En; [|discriminate].
    destruct (d =? 47); [|discriminate]. inversion H47; subst. exact (inp_next_usv rem d rem' Hur En). }
  unfold parse_non_special. rewrite Hss, H47.
  destruct (to_u32 (nlen (sch ++ [58]))) as [ps| |] eqn:Eu; cbn [pbind]; try discriminate.
  apply to_u32_inv in Eu. destruct Eu as [-> Hb1].
  destruct (parse_path dbg CUrlParser STNotSpecial false (nlen (sch ++ [58])) ((sch ++ [58]) ++ [47]) rem')
    as [[[s hh] r]| |] eqn:El; cbn [pbind]; try discriminate.
  destruct (parse_path_ns (sch ++ [58]) dbg rem' false s hh r Hur' El) as (segs & last & -> & Hsegs & Hlast & _ & ->).
  set (T := path_text segs last).
  rewrite (wqf_noauth_eq hp hpo ovr sch T (cbb_rest rem') eq_refl). cbv zeta.
  destruct (parse_query_and_fragment ovr CUrlParser STNotSpecial (nlen sch) (noauth_pre sch T) (cbb_rest rem'))
    as [[[s2 qs] fs]| |] eqn:Eq; cbn [pbind]; try discriminate.
  intros H. inversion H; subst u. clear H.
  apply pqf_out in Eq; [|apply usv_cbb_rest; exact Hur'|].
  2:{ unfold noauth_pre. rewrite <- !app_assoc. rewrite nfirstn_app_len. apply query_enc_nonspecial. exact Hns. }
  destruct Eq as (-> & -> & -> & Bq & Bf & Cq & Cf).
  exists segs, last, (pqf_q STNotSpecial (cbb_rest rem')), (pqf_f (cbb_rest rem')).
  split; [|reflexivity].
  constructor; try assumption.
  exact (parse_scheme_out _ _ _ Hs).
Qed.

(* composition: L1 + L3 *)
Theorem reparse_noauth_input input sch rem rem' u : usv_list input ->
  parse_scheme CUrlParser (input_new_trim_c0 input) = Some (sch, rem) ->
  scheme_type_of sch = STNotSpecial ->
  inp_split_prefix_str s_ss rem = None -> inp_split_prefix_char 47 rem = Some rem' ->
  parse_url dbg hp hpo hd ovr None input = POk u ->
  parse_url dbg hp hpo hd ovr None (ser u) = POk u.
Proof.
  intros Hu Hs Hns Hss H47 Hp.
  destruct (parse_noauth_out input sch rem rem' u Hu Hs Hns Hss H47 Hp) as (segs & last & q & f & K & ->).
  exact (reparse_noauth_form dbg hp hpo hd ovr sch segs last q f K).
Qed.

End NoAuthOut.

(* the canonical form satisfies the structural invariant *)
Lemma wf_qf_generic (A P : list N) q f u :
  ser u = (A ++ P) ++ qf_text q f -> path_start u = nlen A ->
  query_start u = qf_qs (nlen (A ++ P)) q -> fragment_start u = qf_fs (nlen (A ++ P)) q f ->
  forallb (fun c => negb ((c =? 63) || (c =? 35))) P = true -> opt_clean T_QUERY q ->
  wf_query_fragment u = true.
Proof. exact (wf_qf_generic_st STNotSpecial A P q f u). Qed.

Lemma path_text_no_qh segs last : forallb good_seg segs = true -> good_seg last = true ->
  forallb (fun c => negb ((c =? 63) || (c =? 35))) (path_text segs last) = true.
Proof.
  intros Hs Hl.
  assert (forall s, good_seg s = true -> forallb (fun c => negb ((c =? 63) || (c =? 35))) s = true) as G.
  { intros s H. apply (forallb_impl seg_char); [|apply good_seg_chars; exact H].
    intros c Hc. unfold seg_char, is_qh in Hc. apply andb_true_iff in Hc. tauto. }
  unfold path_text. cbn [forallb]. replace (negb ((47 =? 63) || (47 =? 35))) with true by reflexivity. cbn [andb].
  rewrite forallb_app, (G last Hl), andb_true_r.
  induction segs as [|s segs IH]; [reflexivity|].
  cbn [forallb] in Hs. apply andb_true_iff in Hs. destruct Hs as [H1 H2].
  unfold segs_text. cbn [map concat]. fold (segs_text segs). rewrite !forallb_app. rewrite (G s H1), (IH H2). reflexivity.
Qed.

Lemma path_text_ascii segs last : forallb good_seg segs = true -> good_seg last = true -> ascii (path_text segs last).
Proof.
  intros Hs Hl. assert (forall s, good_seg s = true -> ascii s) as G.
  { intros s H. apply (clean_ascii T_PATH). apply (good_seg_parts s H). }
  constructor; [unfold is_ascii; lia|]. apply ascii_app. split; [|exact (G last Hl)].
  induction segs as [|s segs IH]; [constructor|].
  cbn [forallb] in Hs. apply andb_true_iff in Hs. destruct Hs as [H1 H2].
  unfold segs_text. cbn [map concat]. fold (segs_text segs). rewrite <- app_assoc.
  apply ascii_app. split; [exact (G s H1)|]. constructor; [unfold is_ascii; lia | exact (IH H2)].
Qed.

Lemma noauth_url_wf sch segs last q f : noauth_ok sch segs last q f ->
  wf_b (noauth_url sch (path_text segs last) q f) = true
  /\ cannot_be_a_base (noauth_url sch (path_text segs last) q f) = Some false
  /\ ascii (noauth_ser sch (path_text segs last) q f).
Proof.
  intros K. destruct K as [Hsc nk_ns0 nk_segs0 nk_last0 nk_q0 nk_f0 nk_b2 nk_bq0 nk_bf0].
  pose proof Hsc as Hall. unfold scheme_canon in Hall. apply andb_true_iff in Hall. destruct Hall as [_ Hall].
  set (T := path_text segs last) in *. set (body := segs_text segs ++ last).
  assert (T = 47 :: body) as ET by reflexivity.
  set (M := marker_of T). set (A := sch ++ [58]).
  assert (nlen A = nlen sch + 1) as EA by (unfold A; rewrite nlen_app; reflexivity).
  assert (noauth_ser sch T q f = ((A ++ M) ++ T) ++ qf_text q f) as Eser.
  { unfold noauth_ser, noauth_pre. fold A M. rewrite <- !app_assoc. reflexivity. }
  assert (starts_with s_ss (M ++ T ++ qf_text q f) = false) as Hno.
  { unfold M, marker_of. rewrite ET. destruct (starts_with s_ss (47 :: body)) eqn:Ess; [reflexivity|].
    cbn [app]. unfold s_ss in *. cbn [starts_with] in *. replace (47 =? 47) with true in * by reflexivity. cbn [andb] in *.
    destruct body as [|b0 b']; [|cbn [app]; exact Ess].
    cbn [app]. unfold qf_text. destruct q; destruct f; reflexivity. }
  assert (starts_with [47] (M ++ T ++ qf_text q f) = true) as Hsl.
  { unfold M, marker_of. rewrite ET. destruct (starts_with s_ss (47 :: body)); reflexivity. }
  split; [|split].
  - unfold wf_b. apply andb_true_iff. split; [apply andb_true_iff; split|].
    + apply (wf_scheme_canon sch (M ++ T ++ qf_text q f)); [exact Hsc | | reflexivity].
      unfold noauth_url. cbn [ser]. unfold noauth_ser, noauth_pre. rewrite <- !app_assoc. reflexivity.
    + assert (has_authority_b (noauth_url sch T q f) = false) as Hna.
      { unfold has_authority_b, noauth_url. cbn [ser scheme_end]. unfold noauth_ser, noauth_pre. fold M.
        rewrite <- !app_assoc. rewrite nskipn_app_len. unfold s_css. cbn [app starts_with].
        replace (58 =? 58) with true by reflexivity. cbn [andb]. exact Hno. }
      rewrite Hna. unfold wf_no_authority, noauth_url.
      cbn [ser scheme_end username_end host_start host_end hosti port path_start]. fold A M.
      rewrite Eser. rewrite !nlen_app. cbn [hi_eqb].
      replace (nlen A =? nlen sch + 1) with true by lia.
      replace (nlen A + nlen M <=? nlen A + nlen M + nlen T + nlen (qf_text q f)) with true by lia. cbn [andb].
      unfold M, marker_of. rewrite ET. destruct (starts_with s_ss (47 :: body)) eqn:Ess.
      * apply orb_true_iff. right. repeat (apply andb_true_iff; split).
        -- unfold nlen at 2. cbn [length]. lia.
        -- replace (nlen sch + 1) with (nlen A) by lia. rewrite <- !app_assoc. cbn [app]. apply byte_eqb_app.
        -- replace (nlen sch + 2) with (nlen (A ++ [47])) by (rewrite nlen_app; unfold nlen at 2; cbn [length]; lia).
           replace (((A ++ [47; 46]) ++ 47 :: body) ++ qf_text q f) with ((A ++ [47]) ++ 46 :: (47 :: body) ++ qf_text q f)
             by (rewrite <- !app_assoc; reflexivity).
           apply byte_eqb_app.
        -- replace (nlen A + nlen [47; 46]) with (nlen (A ++ [47; 46])) by (rewrite nlen_app; reflexivity).
           rewrite <- (app_assoc (A ++ [47; 46])). rewrite nskipn_app_len.
           unfold s_ss in *. cbn [app starts_with] in *. replace (47 =? 47) with true in * by reflexivity. cbn [andb] in *.
           destruct body as [|b0 b']; [discriminate|]. cbn [app]. exact Ess.
      * apply orb_true_iff. left. unfold nlen at 2. cbn [length]. lia.
    + apply (wf_qf_generic (A ++ M) T q f).
      * exact Eser.
      * unfold noauth_url. cbn [path_start]. fold A M. rewrite nlen_app. reflexivity.
      * unfold noauth_url. cbn [query_start]. unfold noauth_pre. fold A M. rewrite <- !app_assoc. reflexivity.
      * unfold noauth_url. cbn [fragment_start]. unfold noauth_pre. fold A M. rewrite <- !app_assoc. reflexivity.
      * apply path_text_no_qh; assumption.
      * exact nk_q0.
  - unfold cannot_be_a_base, u_slice_from, noauth_url. cbn [ser scheme_end].
    replace (nlen sch + 1) with (nlen A) by lia. unfold noauth_ser, noauth_pre. fold A M. rewrite <- !app_assoc.
    rewrite slice_from_o_some by (rewrite !nlen_app; lia). rewrite nskipn_app_len. cbn [bindo]. rewrite Hsl. reflexivity.
  - assert (ascii A) as HA.
    { unfold A. apply ascii_app. split; [|constructor; [unfold is_ascii; lia | constructor]].
      apply Forall_forall. intros c Hc. rewrite forallb_forall in Hall. specialize (Hall c Hc).
      unfold scheme_out_char, is_lower, is_digit, is_ascii in *. lia. }
    assert (ascii M) as HM.
    { unfold M, marker_of. destruct (starts_with s_ss T); repeat constructor; unfold is_ascii; lia. }
    rewrite Eser. apply ascii_app. split; [|exact (qf_text_ascii T_QUERY q f nk_q0 nk_f0)].
    apply ascii_app. split; [|exact (path_text_ascii segs last nk_segs0 nk_last0)].
    apply ascii_app. split; assumption.
Qed.
