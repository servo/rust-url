(* Proofs/C09_V6sim.v - the IPv6 parser of the model equals the Standard's IPv6 parser on ALL inputs.

   A simulation between the suffix-consuming index/fuel loops of Model/Host.v (v6_main, read_hex, v6_v4,
   read_dec, v6_swaps) and the Standard's pointer machine of Spec/WhatwgHost.v (ipv6_main, hex_piece,
   ipv4_in_ipv6, ipv4_piece_digits, do_swaps), piece by piece.  The model reads the BYTES of the &str, the
   Standard the code points: the two inputs are related by `sim` (equal ASCII prefix; where one side has a
   code point above 127 the other has a byte above 127, after which nothing is assumed - both parsers fail
   when they reach such a position, and neither ever skips one).  Along the way every checked index of the
   model is shown in range, the u16 overflow check of the embedded IPv4 part (pieces[p] * 0x100 + v) is shown
   never to fire (pieces at and after piece_pointer are zero), the usize underflow checks of the swap loop
   likewise, and the fuel of every loop suffices. *)
From RU Require Import Base.Prelude Base.Utf8 Model.HostT Model.Host Spec.WhatwgHost Proofs.C09_V6 Proofs.C09_V4spec
  Proofs.C09_V6spec.

(* ------------------------------------------------------------------ the relation between the two inputs *)

Inductive sim : list N -> list N -> Prop :=
| sim_nil : sim [] []
| sim_ascii c m x : c < 128 -> sim m x -> sim (c :: m) (c :: x)
| sim_bad b m c x : 128 <= b -> 128 <= c -> sim (b :: m) (c :: x).

Lemma sim_refl l : sim l l.
Proof.
  induction l as [|c l IH]; [constructor|].
  destruct (c <? 128) eqn:E; [apply sim_ascii; [lia|exact IH] | apply sim_bad; lia].
Qed.

Lemma sim_utf8 s : sim (utf8_encode s) s.
Proof.
  induction s as [|c s IH]; [constructor|].
  change (utf8_encode (c :: s)) with (utf8_encode1 c ++ utf8_encode s). unfold utf8_encode1.
  destruct (c <? 128) eqn:E1; [apply sim_ascii; [lia|exact IH]|].
  destruct (c <? 2048) eqn:E2; [apply sim_bad; lia|].
  destruct (c <? 65536) eqn:E3; apply sim_bad; lia.
Qed.

Lemma sim_nil_l x : sim [] x -> x = [].
Proof. intros H. inversion H. reflexivity. Qed.

Lemma sim_nil_r m : sim m [] -> m = [].
Proof. intros H. inversion H. reflexivity. Qed.

(* ------------------------------------------------------------------ the Standard's pointer as a suffix *)

Lemma at_skipn input : forall p, Spec.at_ input p = hd_error (skipn p input).
Proof.
  unfold Spec.at_. induction input as [|a l IH]; intros [|p]; cbn [nth_error skipn hd_error]; auto.
Qed.

Lemma skipn_S_tl (input : list N) : forall p, skipn (S p) input = tl (skipn p input).
Proof.
  induction input as [|a l IH]; intros [|p]; try reflexivity.
  change (skipn (S (S p)) (a :: l)) with (skipn (S p) l). rewrite IH. reflexivity.
Qed.

Lemma ptr_cons input p c x' : skipn p input = c :: x' ->
  Spec.at_ input p = Some c /\ skipn (S p) input = x' /\ (p < length input)%nat.
Proof.
  intros H. rewrite at_skipn, skipn_S_tl, H. repeat split.
  pose proof (skipn_length p input) as L. rewrite H in L. cbn [length] in L. lia.
Qed.

Lemma ptr_nil input p : skipn p input = [] -> Spec.at_ input p = None.
Proof. intros H. rewrite at_skipn, H. reflexivity. Qed.

Lemma hex_val_hi b : 128 <= b -> hex_val b = None.
Proof. intros H. pose proof (C09_V4.hex_val_spec b) as S. destruct (hex_val b); [lia | reflexivity]. Qed.

Lemma spec_hex_hi c : 128 <= c -> Spec.ascii_hex_digit c = false.
Proof. intros H. unfold Spec.ascii_hex_digit, Spec.ascii_digit. lia. Qed.

(* ------------------------------------------------------------------ the hex piece *)

Lemma hex_sim k : forall m x input p v n l, sim m x -> skipn p input = x ->
  exists v1 d m1, read_hex k m v n = (v1, n + N.of_nat d, m1)
    /\ Spec.hex_piece k input p v l = (v1, (l + d)%nat, (p + d)%nat)
    /\ sim m1 (skipn (p + d) input) /\ (length m1 + d = length m)%nat.
Proof.
  induction k as [|k IH]; intros m x input p v n l Hs Hx.
  - exists v, 0%nat, m. cbn [read_hex Spec.hex_piece]. rewrite !Nat.add_0_r, Hx.
    repeat split; [f_equal; f_equal; lia | exact Hs].
  - cbn [read_hex Spec.hex_piece]. destruct Hs as [|c m x' Hc Hs|b m c x' Hb Hc].
    + exists v, 0%nat, []. rewrite (ptr_nil _ _ Hx). cbn [Spec.is_hex]. rewrite !Nat.add_0_r, Hx.
      repeat split; [f_equal; f_equal; lia | constructor].
    + destruct (ptr_cons _ _ _ _ Hx) as (Ha & Hn & _). rewrite Ha. cbn [Spec.is_hex Spec.cp_value].
      pose proof (spec_digit c) as SD. destruct (hex_val c) as [dv|].
      * destruct SD as [S1 S2]. rewrite S1, S2.
        destruct (IH m x' input (S p) (v * 16 + dv) (n + 1) (S l) Hs Hn) as (v1 & d & m1 & R1 & R2 & R3 & R4).
        exists v1, (S d), m1. rewrite R1, R2.
        replace (p + S d)%nat with (S p + d)%nat by lia. cbn [length].
        repeat split; [f_equal; f_equal; lia | f_equal; f_equal; lia | exact R3 | lia].
      * rewrite SD. exists v, 0%nat, (c :: m). rewrite !Nat.add_0_r, Hx.
        repeat split; [f_equal; f_equal; lia | apply sim_ascii; assumption].
    + destruct (ptr_cons _ _ _ _ Hx) as (Ha & Hn & _). rewrite Ha. cbn [Spec.is_hex].
      rewrite (hex_val_hi b Hb), (spec_hex_hi c Hc).
      exists v, 0%nat, (b :: m). rewrite !Nat.add_0_r, Hx.
      repeat split; [f_equal; f_equal; lia | apply sim_bad; assumption].
Qed.

(* ------------------------------------------------------------------ pieces: checked indexing against the Standard's list operations *)

Lemma set_at_upd ps : forall i v, (i < length ps)%nat -> firstn i ps ++ v :: skipn (S i) ps = upd_nth ps i v.
Proof.
  induction ps as [|a r IH]; intros [|i] v H; cbn [length] in H; try lia; cbn [firstn skipn app upd_nth]; [reflexivity|].
  f_equal. apply IH. lia.
Qed.

Lemma set_piece_spec ps i v : i < N.of_nat (length ps) -> set_piece ps i v = Some (Spec.set_at ps i v).
Proof. intros H. rewrite set_piece_ok by exact H. unfold Spec.set_at. rewrite set_at_upd by lia. reflexivity. Qed.

Lemma get_piece_spec ps i : i < N.of_nat (length ps) -> get_piece ps i = Some (Spec.get_at ps i).
Proof.
  intros H. unfold get_piece, Spec.get_at. apply nth_error_nth'. lia.
Qed.

Lemma set_at_length ps i v : i < N.of_nat (length ps) -> length (Spec.set_at ps i v) = length ps.
Proof. intros H. unfold Spec.set_at. rewrite set_at_upd by lia. apply upd_nth_length. Qed.

Lemma nth_upd_nth ps : forall i j v, (i < length ps)%nat ->
  nth j (upd_nth ps i v) 0 = if (j =? i)%nat then v else nth j ps 0.
Proof.
  induction ps as [|a r IH]; intros [|i] [|j] v H; cbn [length] in H; try lia; cbn [upd_nth nth Nat.eqb]; try reflexivity.
  apply IH. lia.
Qed.

Lemma get_set_at ps i j v : i < N.of_nat (length ps) ->
  Spec.get_at (Spec.set_at ps i v) j = if j =? i then v else Spec.get_at ps j.
Proof.
  intros H. unfold Spec.get_at, Spec.set_at. rewrite set_at_upd by lia. rewrite nth_upd_nth by lia.
  destruct (j =? i) eqn:E.
  - replace (N.to_nat j =? N.to_nat i)%nat with true by lia. reflexivity.
  - replace (N.to_nat j =? N.to_nat i)%nat with false by lia. reflexivity.
Qed.

(* ------------------------------------------------------------------ the final swaps *)

Lemma swap_pieces_spec ps i j : i < N.of_nat (length ps) -> j < N.of_nat (length ps) ->
  swap_pieces ps i j = Some (Spec.set_at (Spec.set_at ps i (Spec.get_at ps j)) j (Spec.get_at ps i)).
Proof.
  intros Hi Hj. unfold swap_pieces. rewrite (get_piece_spec ps i Hi), (get_piece_spec ps j Hj).
  rewrite (set_piece_spec ps i _ Hi). apply set_piece_spec. rewrite set_at_length by exact Hi. exact Hj.
Qed.

Lemma swaps_sim s : forall ps pp cp, length ps = 8%nat -> N.of_nat s <= pp -> pp < 8 -> cp + N.of_nat s <= 8 ->
  v6_swaps s ps pp cp = XOk (Spec.do_swaps s ps pp cp).
Proof.
  induction s as [|s IH]; intros ps pp cp Hl Hs Hp Hc; [reflexivity|].
  cbn [v6_swaps Spec.do_swaps].
  rewrite swap_pieces_spec by (rewrite Hl; lia).
  replace (pp =? 0) with false by lia.
  apply IH; [|lia|lia|lia].
  rewrite !set_at_length; rewrite ?set_at_length; rewrite ?Hl; try lia.
Qed.

(* steps 7 and 8 of the Standard's parser on the state its main loop returns *)
Definition spec_fin (o : option (list N * N * option N)) : option (list N) :=
  match o with
  | None => None
  | Some (address, pieceIndex, compress) =>
      match compress with
      | Some compress => Some (Spec.do_swaps (N.to_nat (pieceIndex - compress)) address 7 compress)
      | None => if negb (pieceIndex =? 8) then None else Some address
      end
  end.

Definition cp_ok (cp : option N) (pp : N) : Prop :=
  match cp with Some c => 1 <= c /\ c <= pp | None => True end.

Lemma finish_sim ps pp cp : length ps = 8%nat -> pp <= 8 -> cp_ok cp pp ->
  v6_finish ps pp cp = liftx (spec_fin (Some (ps, pp, cp))).
Proof.
  intros Hl Hp Hc. unfold v6_finish, spec_fin. destruct cp as [c|]; cbn [cp_ok] in Hc.
  - replace (pp <? c) with false by lia. rewrite swaps_sim by lia. reflexivity.
  - destruct (pp =? 8); reflexivity.
Qed.

(* ------------------------------------------------------------------ the decimal digits of one embedded IPv4 number *)

Lemma is_digit_hi b : 128 <= b -> is_digit b = false.
Proof. unfold is_digit. lia. Qed.

Lemma digit_value_dec c : is_digit c = true -> Spec.digit_value c = c - 48.
Proof. intros H. unfold Spec.digit_value. change (Spec.ascii_digit c) with (is_digit c). rewrite H. reflexivity. Qed.

Lemma dec_sim m x : sim m x -> forall input p piece fuel, skipn p input = x -> (length input - p <= fuel)%nat ->
  match read_dec m piece with
  | None => Spec.ipv4_piece_digits fuel input p piece = None
  | Some (piece', m1) =>
      exists d, Spec.ipv4_piece_digits fuel input p piece = Some (piece', (p + d)%nat)
        /\ sim m1 (skipn (p + d) input) /\ (length m1 + d = length m)%nat /\ (d = 0%nat -> piece' = piece)
  end.
Proof.
  induction 1 as [|c m x' Hc Hs IH|b m c x' Hb Hc]; intros input p piece fuel Hx Hf.
  - cbn [read_dec]. exists 0%nat. rewrite Nat.add_0_r, Hx. split; [|split; [constructor|split; [lia|reflexivity]]].
    destruct fuel as [|fuel]; cbn [Spec.ipv4_piece_digits]; [reflexivity|]. rewrite (ptr_nil _ _ Hx). reflexivity.
  - destruct (ptr_cons _ _ _ _ Hx) as (Ha & Hn & Hp).
    destruct fuel as [|fuel]; [lia|]. cbn [read_dec Spec.ipv4_piece_digits]. rewrite Ha.
    cbn [Spec.is_dig Spec.cp_value]. change (Spec.ascii_digit c) with (is_digit c).
    destruct (is_digit c) eqn:Ed.
    + rewrite (digit_value_dec c Ed).
      assert (Hf' : (length input - S p <= fuel)%nat) by lia.
      destruct piece as [[|q]|].
      * change (0 =? 0) with true. cbv iota. reflexivity.
      * change (N.pos q =? 0) with false. cbv iota.
        destruct (255 <? N.pos q * 10 + (c - 48)); [reflexivity|].
        specialize (IH input (S p) (Some (N.pos q * 10 + (c - 48))) fuel Hn Hf').
        destruct (read_dec m (Some (N.pos q * 10 + (c - 48)))) as [[piece' m1]|]; [|exact IH].
        destruct IH as (d & I1 & I2 & I3 & _). exists (S d).
        replace (p + S d)%nat with (S p + d)%nat by lia. cbn [length].
        repeat split; [exact I1|exact I2|lia|lia].
      * specialize (IH input (S p) (Some (c - 48)) fuel Hn Hf').
        destruct (read_dec m (Some (c - 48))) as [[piece' m1]|]; [|exact IH].
        destruct IH as (d & I1 & I2 & I3 & _). exists (S d).
        replace (p + S d)%nat with (S p + d)%nat by lia. cbn [length].
        repeat split; [exact I1|exact I2|lia|lia].
    + exists 0%nat. rewrite Nat.add_0_r, Hx. split; [reflexivity|]. split; [apply sim_ascii; assumption|]. split; [lia|reflexivity].
  - destruct (ptr_cons _ _ _ _ Hx) as (Ha & Hn & Hp).
    destruct fuel as [|fuel]; [lia|]. cbn [read_dec Spec.ipv4_piece_digits]. rewrite Ha.
    cbn [Spec.is_dig]. change (Spec.ascii_digit c) with (is_digit c).
    rewrite (is_digit_hi b Hb), (is_digit_hi c Hc).
    exists 0%nat. rewrite Nat.add_0_r, Hx. split; [reflexivity|]. split; [apply sim_bad; assumption|]. split; [lia|reflexivity].
Qed.

Lemma read_dec_bound m : forall piece v rest, read_dec m piece = Some (Some v, rest) ->
  (forall pv, piece = Some pv -> pv <= 255) -> v <= 255.
Proof.
  induction m as [|c m IH]; intros piece v rest H Hp; cbn [read_dec] in H.
  - inversion H; subst. apply Hp. reflexivity.
  - destruct (is_digit c) eqn:Ed.
    + destruct piece as [[|q]|]; [discriminate| |].
      * destruct (255 <? N.pos q * 10 + (c - 48)) eqn:E; [discriminate|].
        eapply IH; [exact H|]. intros pv Hpv. inversion Hpv; subst. lia.
      * eapply IH; [exact H|]. intros pv Hpv. inversion Hpv; subst. unfold is_digit in Ed. lia.
    + inversion H; subst. apply Hp. reflexivity.
Qed.

Lemma precheck fuel input p : Spec.is_dig (Spec.at_ input p) = false ->
  Spec.ipv4_piece_digits fuel input p None = Some (None, p).
Proof. intros H. destruct fuel; cbn [Spec.ipv4_piece_digits]; [reflexivity|]. rewrite H. reflexivity. Qed.

Lemma sim_cons_inv b m' x : sim (b :: m') x ->
  exists c x', x = c :: x' /\ ((b < 128 /\ c = b /\ sim m' x') \/ (128 <= b /\ 128 <= c)).
Proof.
  intros H. inversion H; subst.
  - exists b, x0. split; [reflexivity|]. left. auto.
  - exists c, x0. split; [reflexivity|]. right. auto.
Qed.

(* ------------------------------------------------------------------ the embedded IPv4 part *)

Definition inv4 (ps : list N) (pp seen : N) : Prop :=
  length ps = 8%nat /\ seen <= 4 /\ pp <= 6 + seen / 2
  /\ (forall j, pp < j -> Spec.get_at ps j = 0)
  /\ Spec.get_at ps pp <= (if (seen =? 1) || (seen =? 3) then 255 else 0).

Definition v4_rel (r : xr (list N * N * N)) (o : option (list N * N * N)) (pp : N) : Prop :=
  match r with
  | XOk (ps', pp', seen') =>
      o = Some (ps', pp', seen') /\ length ps' = 8%nat /\ pp <= pp' /\ pp' <= 6 + seen' / 2 /\ seen' <= 4
  | XErr InvalidIpv6Address => o = None
  | _ => False
  end.

Lemma v4_rel_weaken r o pp pp1 : pp <= pp1 -> v4_rel r o pp1 -> v4_rel r o pp.
Proof.
  intros H. destruct r as [[[ps' pp'] seen']|e| |]; cbn [v4_rel]; auto.
  intros (R1 & R2 & R3 & R4). repeat split; try assumption; lia.
Qed.

Lemma inv4_step ps pp seen v : inv4 ps pp seen -> seen < 4 -> v <= 255 ->
  inv4 (Spec.set_at ps pp (Spec.get_at ps pp * 256 + v))
       (if (seen + 1 =? 2) || (seen + 1 =? 4) then pp + 1 else pp) (seen + 1).
Proof.
  intros (Hl & H4 & Hpp & Hz & Ho) Hs Hv.
  assert (Hi : pp < N.of_nat (length ps)) by (rewrite Hl; lia).
  assert (Hc : seen = 0 \/ seen = 1 \/ seen = 2 \/ seen = 3) by lia.
  unfold inv4. rewrite set_at_length by exact Hi. split; [exact Hl|]. split; [lia|].
  destruct Hc as [-> | [-> | [-> | ->]]]; vm_compute (_ || _); cbv iota; vm_compute (_ || _) in Ho; cbv iota in Ho.
  - split; [vm_compute (_ / 2) in *; lia|]. split.
    + intros j Hj. rewrite get_set_at by exact Hi. replace (j =? pp) with false by lia. apply Hz. exact Hj.
    + rewrite get_set_at by exact Hi. rewrite N.eqb_refl. lia.
  - split; [vm_compute (_ / 2) in *; lia|]. split.
    + intros j Hj. rewrite get_set_at by exact Hi. replace (j =? pp) with false by lia. apply Hz. lia.
    + rewrite get_set_at by exact Hi. replace (pp + 1 =? pp) with false by lia. rewrite Hz by lia. lia.
  - split; [vm_compute (_ / 2) in *; lia|]. split.
    + intros j Hj. rewrite get_set_at by exact Hi. replace (j =? pp) with false by lia. apply Hz. exact Hj.
    + rewrite get_set_at by exact Hi. rewrite N.eqb_refl. lia.
  - split; [vm_compute (_ / 2) in *; lia|]. split.
    + intros j Hj. rewrite get_set_at by exact Hi. replace (j =? pp) with false by lia. apply Hz. lia.
    + rewrite get_set_at by exact Hi. replace (pp + 1 =? pp) with false by lia. rewrite Hz by lia. lia.
Qed.

Lemma v4_sim f : forall g m x input p ps pp seen, sim m x -> skipn p input = x ->
  (length m <= f)%nat -> (length input - p < g)%nat -> inv4 ps pp seen ->
  v4_rel (v6_v4 f m ps pp seen) (Spec.ipv4_in_ipv6 g input p ps pp seen) pp.
Proof.
  induction f as [|f IH]; intros g m x input p ps pp seen Hs Hx Hf Hg Hi; (destruct g as [|g]; [lia|]).
  - destruct m as [|b m']; [|cbn [length] in Hf; lia]. apply sim_nil_l in Hs. subst x.
    cbn [v6_v4 Spec.ipv4_in_ipv6 v4_rel]. rewrite (ptr_nil _ _ Hx).
    destruct Hi as (Hl & H4 & Hpp & _). repeat split; try assumption; lia.
  - destruct m as [|b m'].
    { apply sim_nil_l in Hs. subst x.
      cbn [v6_v4 Spec.ipv4_in_ipv6 v4_rel]. rewrite (ptr_nil _ _ Hx).
      destruct Hi as (Hl & H4 & Hpp & _). repeat split; try assumption; lia. }
    destruct (sim_cons_inv _ _ _ Hs) as (c & x' & -> & D).
    destruct (ptr_cons _ _ _ _ Hx) as (Ha & Hn & Hp).
    cbn [v6_v4 Spec.ipv4_in_ipv6]. rewrite Ha. cbn [Spec.is_cp]. cbn [length] in Hf.
    set (after_sep := if 0 <? seen then if (seen <? 4) && (b =? 46) then Some m' else None else Some (b :: m')).
    set (pointer_o := if 0 <? seen then if (c =? 46) && (seen <? 4) then Some (S p) else None else Some p).
    assert (SEP : (after_sep = None /\ pointer_o = None)
                  \/ exists inp1 p1, after_sep = Some inp1 /\ pointer_o = Some p1 /\ sim inp1 (skipn p1 input)
                       /\ (p <= p1)%nat /\ (length inp1 <= S (length m'))%nat /\ seen < 4).
    { subst after_sep pointer_o. destruct (0 <? seen) eqn:E0.
      - destruct (seen <? 4) eqn:E4; [|rewrite andb_false_r; left; split; reflexivity].
        rewrite andb_true_r. cbn [andb].
        destruct D as [(Hb & -> & Hs')|(Hb & Hc)].
        + destruct (b =? 46) eqn:E; [right|left; split; reflexivity].
          exists m', (S p). rewrite Hn. repeat split; try assumption; lia.
        + replace (b =? 46) with false by lia. replace (c =? 46) with false by lia. left. split; reflexivity.
      - right. exists (b :: m'), p. rewrite Hx. cbn [length]. repeat split; try assumption; lia. }
    destruct SEP as [[E1 E2]|(inp1 & p1 & E1 & E2 & S1 & Hp1 & Hl1 & Hs4)]; rewrite E1, E2.
    { reflexivity. }
    clear E1 E2 after_sep pointer_o.
    assert (Hfuel : (length input - p1 <= length input)%nat) by lia.
    pose proof (dec_sim inp1 _ S1 input p1 None (length input) eq_refl Hfuel) as DS.
    destruct (read_dec inp1 None) as [[[v|] rest]|] eqn:RD.
    + destruct DS as (d & D1 & D2 & D3 & D4).
      assert (Hd : d <> 0%nat) by (intros Z; specialize (D4 Z); discriminate).
      destruct (Spec.is_dig (Spec.at_ input p1)) eqn:Edig;
        [|rewrite (precheck _ _ _ Edig) in D1; discriminate].
      cbn [negb]. rewrite D1.
      pose proof Hi as (Hl & H4 & Hpp & Hz & Ho).
      assert (Hpi : pp < N.of_nat (length ps)) by (rewrite Hl; lia).
      rewrite (get_piece_spec ps pp Hpi).
      assert (Hv : v <= 255).
      { eapply read_dec_bound; [exact RD|]. intros pv Hpv. discriminate. }
      assert (Hold : Spec.get_at ps pp <= 255) by (destruct ((seen =? 1) || (seen =? 3)); lia).
      replace (U16_MAX <? Spec.get_at ps pp * 256 + v) with false by (unfold U16_MAX; lia).
      rewrite (set_piece_spec ps pp _ Hpi).
      eapply v4_rel_weaken; [|apply (IH g rest (skipn (p1 + d) input) input (p1 + d)%nat); [exact D2|reflexivity|lia|lia|]].
      * destruct ((seen + 1 =? 2) || (seen + 1 =? 4)); lia.
      * apply inv4_step; assumption.
    + cbn [v4_rel]. destruct (Spec.is_dig (Spec.at_ input p1)); cbn [negb]; [|reflexivity].
      destruct DS as (d & D1 & _). rewrite D1. reflexivity.
    + cbn [v4_rel]. destruct (Spec.is_dig (Spec.at_ input p1)); cbn [negb]; [|reflexivity].
      rewrite DS. reflexivity.
Qed.

(* ------------------------------------------------------------------ the main loop *)

Definition inv (ps : list N) (pp : N) (cp : option N) : Prop :=
  length ps = 8%nat /\ pp <= 8 /\ (forall j, pp <= j -> Spec.get_at ps j = 0) /\ cp_ok cp pp.

Lemma cp_ok_mono cp pp pp' : cp_ok cp pp -> pp <= pp' -> cp_ok cp pp'.
Proof. destruct cp as [c|]; cbn [cp_ok]; lia. Qed.

Lemma inv_set ps pp cp v : inv ps pp cp -> pp <> 8 -> inv (Spec.set_at ps pp v) (pp + 1) cp.
Proof.
  intros (Hl & Hp & Hz & Hc) H8. assert (Hi : pp < N.of_nat (length ps)) by (rewrite Hl; lia).
  unfold inv. rewrite set_at_length by exact Hi. repeat split; [exact Hl|lia| |eapply cp_ok_mono; [exact Hc|lia]].
  intros j Hj. rewrite get_set_at by exact Hi. replace (j =? pp) with false by lia. apply Hz. lia.
Qed.

Lemma inv_colon ps pp : inv ps pp None -> pp <> 8 -> inv ps (pp + 1) (Some (pp + 1)).
Proof.
  intros (Hl & Hp & Hz & _) H8. repeat split; [exact Hl|lia| |lia|lia]. intros j Hj. apply Hz. lia.
Qed.

Lemma inv_inv4 ps pp cp : inv ps pp cp -> pp <= 6 -> inv4 ps pp 0.
Proof.
  intros (Hl & Hp & Hz & _) H6. repeat split; [exact Hl|lia|vm_compute (0 / 2); lia| |].
  - intros j Hj. apply Hz. lia.
  - rewrite Hz by lia. vm_compute. discriminate.
Qed.

Lemma main_sim f : forall g m x input p ps pp cp, sim m x -> skipn p input = x ->
  (length m <= f)%nat -> (length input - p < g)%nat -> inv ps pp cp ->
  xr_bind (v6_main f m ps pp cp) v6_tail = liftx (spec_fin (Spec.ipv6_main g input p ps pp cp)).
Proof.
  induction f as [|f IH]; intros g m x input p ps pp cp Hs Hx Hf Hg Hi; (destruct g as [|g]; [lia|]).
  - destruct m as [|b m']; [|cbn [length] in Hf; lia]. apply sim_nil_l in Hs. subst x.
    rewrite v6_main_nil. cbn [xr_bind v6_tail Spec.ipv6_main]. rewrite (ptr_nil _ _ Hx).
    destruct Hi as (Hl & Hp & _ & Hc). apply finish_sim; assumption.
  - destruct m as [|b m'].
    { apply sim_nil_l in Hs. subst x.
      rewrite v6_main_nil. cbn [xr_bind v6_tail Spec.ipv6_main]. rewrite (ptr_nil _ _ Hx).
      destruct Hi as (Hl & Hp & _ & Hc). apply finish_sim; assumption. }
    destruct (sim_cons_inv _ _ _ Hs) as (c & x' & -> & D).
    destruct (ptr_cons _ _ _ _ Hx) as (Ha & Hn & Hp).
    rewrite v6_main_step. cbn [Spec.ipv6_main]. rewrite Ha. cbn [length] in Hf.
    pose proof Hi as (Hl & Hp8 & Hz & Hcp).
    destruct (pp =? 8) eqn:E8; [reflexivity|].
    assert (Hpi : pp < N.of_nat (length ps)) by (rewrite Hl; lia).
    assert (E58 : (c =? 58) = (b =? 58)) by (destruct D as [(? & -> & ?)|(? & ?)]; lia).
    rewrite E58. destruct (b =? 58) eqn:Eb.
    { destruct cp as [cpv|]; [reflexivity|].
      destruct D as [(Hb & -> & Hs')|(Hb & Hc)]; [|lia].
      apply (IH g m' x' input (S p)); [exact Hs'|exact Hn|lia|lia|]. apply inv_colon; [exact Hi|lia]. }
    destruct (hex_sim 4 _ _ input p 0 0 0%nat Hs Hx) as (v1 & d & m1 & R1 & R2 & R3 & R4).
    rewrite R1, R2. cbv beta iota. cbn [length] in R4.
    remember (skipn (p + d) input) as x1 eqn:Ex1. symmetry in Ex1.
    pose proof (skipn_length (p + d) input) as L1. rewrite Ex1 in L1.
    destruct R3 as [|c1 m1' x1' Hc1 Hs1|b1 m1' c1 x1' Hb1 Hc1].
    + rewrite (ptr_nil _ _ Ex1). cbn [Spec.is_cp]. rewrite (set_piece_spec ps pp v1 Hpi).
      cbn [length] in L1.
      apply (IH g [] [] input (p + d)%nat); [constructor|exact Ex1|cbn [length]; lia|lia|].
      apply inv_set; [exact Hi|lia].
    + destruct (ptr_cons _ _ _ _ Ex1) as (Ha1 & Hn1 & Hp1). rewrite Ha1. cbn [Spec.is_cp]. cbn [length] in R4.
      destruct (c1 =? 46) eqn:E46.
      * destruct d as [|d'].
        { replace (0 + N.of_nat 0 =? 0) with true by lia. reflexivity. }
        replace (0 + N.of_nat (S d') =? 0) with false by lia. change ((0 + S d' =? 0)%nat) with false. cbv iota.
        destruct (6 <? pp) eqn:E6; [reflexivity|].
        cbn [xr_bind v6_tail]. rewrite E6.
        replace (p + S d' - (0 + S d'))%nat with p by lia.
        assert (Hg4 : (length input - p < S (length input))%nat) by lia.
        assert (Hi4 : inv4 ps pp 0) by (eapply inv_inv4; [exact Hi|lia]).
        pose proof (v4_sim (length (b :: m')) (S (length input)) (b :: m') _ input p ps pp 0 Hs Hx (le_n _) Hg4 Hi4) as V.
        destruct (v6_v4 (length (b :: m')) (b :: m') ps pp 0) as [[[ps' pp'] seen']|e| |]; cbn [v4_rel] in V.
        -- destruct V as (V1 & V2 & V3 & V4 & V5). rewrite V1. cbn [xr_bind].
           destruct (negb (seen' =? 4)); [reflexivity|].
           apply finish_sim; [exact V2|lia|eapply cp_ok_mono; [exact Hcp|exact V3]].
        -- destruct e; try contradiction. rewrite V. reflexivity.
        -- contradiction.
        -- contradiction.
      * destruct (c1 =? 58) eqn:E58'; [|reflexivity].
        destruct m1' as [|b2 m2].
        { apply sim_nil_l in Hs1. subst x1'. rewrite (ptr_nil _ _ Hn1). reflexivity. }
        destruct (sim_cons_inv _ _ _ Hs1) as (c2 & x2 & Ex2 & _).
        rewrite Ex2 in Hn1. destruct (ptr_cons _ _ _ _ Hn1) as (Ha2 & _ & Hp2). rewrite Ha2.
        rewrite (set_piece_spec ps pp v1 Hpi). rewrite <- Ex2 in Hn1.
        apply (IH g (b2 :: m2) x1' input (S (p + d))); [exact Hs1|exact Hn1|lia|lia|].
        apply inv_set; [exact Hi|lia].
    + destruct (ptr_cons _ _ _ _ Ex1) as (Ha1 & Hn1 & Hp1). rewrite Ha1. cbn [Spec.is_cp].
      replace (b1 =? 46) with false by lia. replace (b1 =? 58) with false by lia.
      replace (c1 =? 46) with false by lia. replace (c1 =? 58) with false by lia. reflexivity.
Qed.

(* ------------------------------------------------------------------ the whole parser *)

Lemma zero_get j : Spec.get_at v6_zero j = 0.
Proof.
  unfold Spec.get_at, v6_zero. generalize (N.to_nat j). intros n.
  do 8 (destruct n as [|n]; [reflexivity|]). destruct n; reflexivity.
Qed.

Lemma inv_zero0 : inv v6_zero 0 None.
Proof. repeat split; [lia|]. intros j _. apply zero_get. Qed.

Lemma inv_zero1 : inv v6_zero 1 (Some 1).
Proof. repeat split; try lia. intros j _. apply zero_get. Qed.

Lemma ipv6_parse_fin input :
  Spec.ipv6_parse input =
  match (if Spec.is_cp (Spec.at_ input 0) 58 then
           if negb (Spec.is_cp (Spec.at_ input 1) 58) then None else Some (2%nat, 1, Some 1)
         else Some (0%nat, 0, None)) with
  | None => None
  | Some (p, pi, c) => spec_fin (Spec.ipv6_main (S (length input)) input p v6_zero pi c)
  end.
Proof. reflexivity. Qed.

(* inputs shorter than two bytes: the explicit length check agrees with running the loop *)
Lemma short_loop m : (length m < 2)%nat -> starts_with 58 m = false ->
  xr_bind (v6_main (length m) m v6_zero 0 None) v6_tail = XErr InvalidIpv6Address.
Proof.
  intros Hl Hc. destruct m as [|b [|b' m']]; [| |cbn [length] in Hl; lia].
  - rewrite v6_main_nil. reflexivity.
  - cbn [starts_with] in Hc. cbn [length]. rewrite v6_main_step.
    change (0 =? 8) with false. rewrite Hc. cbv iota. cbn [read_hex].
    destruct (hex_val b) as [dv|].
    + cbv beta iota. unfold set_piece. cbn [length v6_zero]. change (0 <? N.of_nat 8) with true. cbv iota.
      rewrite v6_main_nil. reflexivity.
    + cbv beta iota. destruct (b =? 46); [reflexivity|]. rewrite Hc. reflexivity.
Qed.

Lemma parse_nocolon c0 m0 : (c0 =? 58) = false ->
  parse_ipv6addr (c0 :: m0) = xr_bind (v6_main (length (c0 :: m0)) (c0 :: m0) v6_zero 0 None) v6_tail.
Proof.
  intros H. destruct m0 as [|c1 r2].
  - symmetry. apply short_loop; [cbn [length]; lia|exact H].
  - unfold parse_ipv6addr. rewrite H. reflexivity.
Qed.

Theorem parse_ipv6addr_sim m x : sim m x -> parse_ipv6addr m = liftx (Spec.ipv6_parse x).
Proof.
  intros Hs. rewrite ipv6_parse_fin.
  destruct m as [|c0 m0].
  { apply sim_nil_l in Hs. subst x. reflexivity. }
  destruct (sim_cons_inv _ _ _ Hs) as (c & x' & -> & D).
  change (Spec.at_ (c :: x') 0) with (Some c). change (Spec.at_ (c :: x') 1) with (hd_error x'). cbn [Spec.is_cp].
  assert (E58 : (c =? 58) = (c0 =? 58)) by (destruct D as [(? & -> & ?)|(? & ?)]; lia).
  rewrite E58. destruct (c0 =? 58) eqn:E0.
  - destruct D as [(Hb & -> & Hs')|(Hb & Hc)]; [|lia].
    destruct m0 as [|c1 r2].
    { apply sim_nil_l in Hs'. subst x'. reflexivity. }
    destruct (sim_cons_inv _ _ _ Hs') as (c1' & x2 & -> & D').
    cbn [hd_error Spec.is_cp]. unfold parse_ipv6addr. rewrite E0.
    assert (E58' : (c1' =? 58) = (c1 =? 58)) by (destruct D' as [(? & -> & ?)|(? & ?)]; lia).
    rewrite E58'. destruct (c1 =? 58) eqn:E1; [|reflexivity]. cbn [negb].
    destruct D' as [(Hb1 & -> & Hs2)|(Hb1 & Hc1)]; [|lia].
    apply (main_sim (length r2) (S (length (c0 :: c1 :: x2))) r2 x2 (c0 :: c1 :: x2) 2%nat);
      [exact Hs2|reflexivity|lia|cbn [length]; lia|exact inv_zero1].
  - rewrite (parse_nocolon c0 m0 E0).
    apply (main_sim (length (c0 :: m0)) (S (length (c :: x'))) (c0 :: m0) (c :: x') (c :: x') 0%nat);
      [exact Hs|reflexivity|lia|lia|exact inv_zero0].
Qed.

(* the second conjunct of C09_ipv6_spec_statement, without the scalar-value hypothesis *)
Theorem ipv6_parse_spec_str s : parse_ipv6addr (utf8_encode s) = liftx (Spec.ipv6_parse s).
Proof. apply parse_ipv6addr_sim. apply sim_utf8. Qed.

(* the same for the function on arbitrary byte lists (code points above 127 fail like bytes above 127) *)
Theorem ipv6_parse_spec_bytes l : parse_ipv6addr l = liftx (Spec.ipv6_parse l).
Proof. apply parse_ipv6addr_sim. apply sim_refl. Qed.

Theorem ipv6_parse_spec_full : ipv6_parse_spec_statement.
Proof. intros s _. apply ipv6_parse_spec_str. Qed.

