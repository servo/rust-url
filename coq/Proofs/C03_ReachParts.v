(* Proofs/C03_ReachParts.v - what a SUCCESSFUL run of each parser state writes, as far as the structural
   invariant wf_b (Model/WF.v) is concerned.  No hypothesis on the input (no scalar-value condition), none
   on the query encoding override, and only on the host functions where a host is written.
     1. percent-encoded text never contains a byte its set encodes (any input, bytes or not);
     2. the path states (context UrlParser) keep the text in front of the path and write no '?' / '#';
     3. query / fragment states: serialization = old ++ ['?' q] ++ ['#' f], q free of '#';
     4. the userinfo state: where username_end lies and which delimiters stand around it;
     5. host and port: host text, ':' and the decimal port, port <= 65535.
   Inversion twin of the totality lemmas of C04_Parse / C04_PathTotal. *)
From RU Require Import Base.Prelude Base.Utf8 Model.AsciiSet Gen.Tables Model.PercentEncoding
  Model.HostT Model.UrlRecord Model.Parser Model.WF
  Proofs.ListN Proofs.C06_List Proofs.C02_Parts Proofs.C02_Opaque Proofs.C03_WF Proofs.C06_WFI Proofs.C06_Tail
  Proofs.C06_Steps Proofs.C06_FragQuery Proofs.C06_PathParser
  Proofs.C04_Parse Proofs.C04_PathTotal Proofs.C04_ParseTotal.

(* 1. percent-encoded text *)
(* the bytes of the encoding table: '%', 0-9, A-F *)
Definition pct_out (c : N) : bool := (c =? 37) || is_digit c || ((65 <=? c) && (c <=? 70)).

Lemma enc_table_sweep : forallb pct_out T_ENC_TABLE = true.
Proof. vm_compute. reflexivity. Qed.

Lemma enc_byte_pct b : forallb pct_out (enc_byte b) = true.
Proof.
  unfold enc_byte. change (forallb pct_out (nfirstn T_ENC_WIDTH (nskipn (b * T_ENC_STRIDE) T_ENC_TABLE)) = true).
  apply forallb_nfirstn. apply forallb_nskipn. exact enc_table_sweep.
Qed.

Section PeOut.
Variables (S : aset) (Q : N -> bool).
Hypothesis Hpct : forall c, pct_out c = true -> Q c = true.
(* a byte that is kept satisfies Q *)
Definition keepQ (b : N) : Prop := should_encode S b = false -> Q b = true.

Lemma span_keep_Q bs : Forall keepQ bs ->
  forallb Q (fst (span_keep S bs)) = true /\ Forall keepQ (snd (span_keep S bs)).
Proof.
  induction bs as [|b r IH]; intros H; [split; [reflexivity | constructor]|]. cbn [span_keep].
  destruct (should_encode S b) eqn:E; [split; [reflexivity | exact H]|].
  inversion H as [|? ? Hb Hr]; subst. destruct (IH Hr) as [I1 I2].
  destruct (span_keep S r) as [u rest]. cbn [fst snd forallb] in *. rewrite (Hb E), I1. split; [reflexivity | exact I2].
Qed.

Lemma pe_chunks_f_Q fuel : forall bs, Forall keepQ bs -> forallb Q (concat (pe_chunks_f fuel S bs)) = true.
Proof.
  induction fuel as [|f IH]; intros bs H; [reflexivity|]. cbn [pe_chunks_f]. unfold pe_next.
  destruct bs as [|b r]; [reflexivity|]. inversion H as [|? ? Hb Hr]; subst. destruct (should_encode S b) eqn:E.
  - cbn [concat]. apply forallb_app_iff. split; [|apply IH; exact Hr].
    apply (forallb_impl pct_out Q); [exact Hpct | apply enc_byte_pct].
  - destruct (span_keep_Q r Hr) as [Hs Hrest]. destruct (span_keep S r) as [u rest]. cbn [fst snd] in Hs, Hrest.
    cbn [concat]. apply forallb_app_iff. split; [|apply IH; exact Hrest]. cbn [forallb]. rewrite (Hb E), Hs. reflexivity.
Qed.

Lemma pe_display_Q_in bs : Forall keepQ bs -> forallb Q (pe_display S bs) = true.
Proof. unfold pe_display, pe_chunks. apply pe_chunks_f_Q. Qed.

Lemma pe_display_Q bs : (forall b, should_encode S b = false -> Q b = true) -> forallb Q (pe_display S bs) = true.
Proof. intros H. apply pe_display_Q_in. apply Forall_forall. intros b _. exact (H b). Qed.
End PeOut.

(* the UTF-8 encoding of anything at or above 128 consists of bytes at or above 128 (all percent-encoded) *)
Lemma utf8_encode1_high c : 128 <= c -> Forall (fun b => 128 <= b) (utf8_encode1 c).
Proof.
  intros H. unfold utf8_encode1. replace (c <? 128) with false by lia.
  destruct (c <? 2048); [repeat constructor; lia|]. destruct (c <? 65536); repeat constructor; lia.
Qed.

Lemma pe_display_char_Q S Q c : (forall d, pct_out d = true -> Q d = true) -> Q c = true ->
  forallb Q (pe_display S (utf8_encode [c])) = true.
Proof.
  intros Hpct Hc. apply pe_display_Q_in; [exact Hpct|]. cbn [utf8_encode flat_map]. rewrite app_nil_r.
  destruct (c <? 128) eqn:E.
  - unfold utf8_encode1. rewrite E. constructor; [intros _; exact Hc | constructor].
  - eapply Forall_impl; [|apply utf8_encode1_high; lia]. intros b Hb. cbv beta in Hb. unfold keepQ, should_encode.
    replace (128 <=? b) with true by lia. discriminate.
Qed.

Lemma pct_no_qh c : pct_out c = true -> no_qh c = true.
Proof. unfold pct_out, no_qh, is_digit. lia. Qed.

Lemma pct_no_h c : pct_out c = true -> no_h c = true.
Proof. unfold pct_out, no_h, is_digit. lia. Qed.

Lemma pe_display_no_qh set bs : should_encode set 63 = true -> should_encode set 35 = true ->
  forallb no_qh (pe_display set bs) = true.
Proof.
  intros H63 H35. apply pe_display_Q; [exact pct_no_qh|]. intros b Hb. unfold no_qh.
  destruct (b =? 63) eqn:E1; [apply N.eqb_eq in E1; subst b; congruence|].
  destruct (b =? 35) eqn:E2; [apply N.eqb_eq in E2; subst b; congruence|]. reflexivity.
Qed.

Lemma pe_display_no_h set bs : should_encode set 35 = true -> forallb no_h (pe_display set bs) = true.
Proof.
  intros H35. apply pe_display_Q; [exact pct_no_h|]. intros b Hb. unfold no_h.
  destruct (b =? 35) eqn:E2; [apply N.eqb_eq in E2; subst b; congruence|]. reflexivity.
Qed.

(* 2. the path states, context UrlParser *)
Section UrlPath.
Variables (dbg : bool) (st : scheme_type) (ps m : N) (pre : list N).
Hypothesis Hm1 : ps <= m.
Hypothesis Hm2 : m <= ps + 1.
Hypothesis Hpre : nlen pre = m.
Hypothesis Hf : st_is_file st = true -> m = ps.
Notation PI := (PInv ps m pre).

Lemma pinv_push_pending_any ctx ser pending : PI ser -> PI (push_pending ctx st ser pending).
Proof using Hm1 Hm2 Hpre.
  intros H. unfold push_pending. destruct pending as [|c r]; [exact H|].
  unfold push_encoded. apply (pinv_app ps m pre Hm1 Hm2 Hpre); [exact H|].
  destruct (path_set_encodes_qh ctx st). apply pe_display_no_qh; assumption.
Qed.

Lemma pinv_loop_url l : forall ser ss pend hh s' hh' rem,
  parse_path_loop dbg CUrlParser st ps l ser ss pend hh = POk (s', hh', rem) -> PI ser -> m <= ss ->
  exists x, s' = file_path_fixup st ps x /\ PI x /\ rem_ok rem.
Proof using Hm1 Hm2 Hpre Hf.
  induction l as [|c r IH]; intros ser ss pend hh s' hh' rem H I Hs; cbn [parse_path_loop] in H.
  - destruct (finish_segment dbg st ps (push_pending CUrlParser st ser pend) ss false hh) as [[s2 h2]| |] eqn:E;
      cbn [pbind] in H; try discriminate.
    injection H as <- <- <-. exists s2. split; [reflexivity|]. split; [|exact rem_ok_nil].
    eapply (pinv_finish_segment dbg ps m pre Hm1 Hm2 Hpre); [exact E | apply pinv_push_pending_any; exact I | exact Hs].
  - destruct (is_tnl c) eqn:Et.
    { eapply IH; [exact H | apply pinv_push_pending_any; exact I | exact Hs]. }
    cbn [ctx_eqb negb andb] in H.
    destruct ((c =? 47) || (c =? 92) && st_is_special st).
    { destruct (finish_segment dbg st ps (push_pending CUrlParser st ser pend ++ [47]) ss true hh) as [[s2 h2]| |] eqn:E;
        cbn [pbind] in H; try discriminate.
      assert (PI s2) as I2.
      { eapply (pinv_finish_segment dbg ps m pre Hm1 Hm2 Hpre); [exact E | | exact Hs].
        apply (pinv_app ps m pre Hm1 Hm2 Hpre); [apply pinv_push_pending_any; exact I | reflexivity]. }
      eapply IH; [exact H | exact I2 | apply (pinv_len ps m pre Hm1 Hm2 Hpre); exact I2]. }
    rewrite andb_true_r in H. fold (is_qh c) in H. destruct (is_qh c) eqn:Eq.
    { destruct (finish_segment dbg st ps (push_pending CUrlParser st ser pend) ss false hh) as [[s2 h2]| |] eqn:E;
        cbn [pbind] in H; try discriminate.
      injection H as <- <- <-. exists s2. split; [reflexivity|]. split; [|apply rem_ok_cons; assumption].
      eapply (pinv_finish_segment dbg ps m pre Hm1 Hm2 Hpre); [exact E | apply pinv_push_pending_any; exact I | exact Hs]. }
    destruct (st_is_file st && (ps <? nlen ser) && is_normalized_wdl (nskipn (ps + 1) ser)).
    { eapply IH; [exact H | | lia].
      apply (pinv_app ps m pre Hm1 Hm2 Hpre); [apply pinv_push_pending_any; exact I | reflexivity]. }
    eapply IH; [exact H | exact I | exact Hs].
Qed.
End UrlPath.

(* parse_path for a scheme other than file, entered with "prefix / ..." (what follows the prefix free of
   '?' / '#'): the prefix and the '/' stay, what follows is free of '?' and '#', and the rest of the input
   is empty or starts with '?' / '#' *)
Lemma parse_path_shape dbg st hh ps ser l s' hh' rem : st_is_file st = false -> ps + 1 <= nlen ser ->
  nnth ser ps = Some 47 -> forallb no_qh (nskipn ps ser) = true ->
  parse_path dbg CUrlParser st hh ps ser l = POk (s', hh', rem) ->
  agree_pre (ps + 1) ser s' /\ ps + 1 <= nlen s' /\ nnth s' ps = Some 47
  /\ forallb no_qh (nskipn ps s') = true /\ rem_ok rem.
Proof.
  intros Hnf Hl H47 Hq H. unfold parse_path in H.
  assert (nlen (nfirstn (ps + 1) ser) = ps + 1) as Lp by (apply nlen_nfirstn; exact Hl).
  assert (PInv ps (ps + 1) (nfirstn (ps + 1) ser) ser) as I0 by (split; [reflexivity | exact Hq]).
  destruct (pinv_loop_url dbg st ps (ps + 1) (nfirstn (ps + 1) ser) ltac:(lia) ltac:(lia) Lp ltac:(rewrite Hnf; discriminate)
              l ser (nlen ser) [] hh s' hh' rem H I0 ltac:(lia)) as (x & Ex & Ix & Hr).
  unfold file_path_fixup in Ex. rewrite Hnf in Ex. subst x.
  pose proof (pinv_len ps (ps + 1) (nfirstn (ps + 1) ser) ltac:(lia) ltac:(lia) Lp s' Ix) as L. destruct Ix as [I1 I2].
  split; [exact I1|]. split; [exact L|]. split; [|split; [exact I2 | exact Hr]].
  rewrite (pre_nnth (ps + 1) ser s' ps I1) by lia. exact H47.
Qed.

(* parse_path_start behind an authority: the text in front stays, the path is empty or starts with '/' *)
Lemma parse_path_start_shape dbg st hh ser l s' hh' rem : st_is_file st = false ->
  (st_is_special st = true -> ends_with_byte 47 ser = false) ->
  parse_path_start dbg CUrlParser st hh ser l = POk (s', hh', rem) ->
  agree_pre (nlen ser) ser s' /\ nlen ser <= nlen s'
  /\ (nlen s' = nlen ser \/ nnth s' (nlen ser) = Some 47) /\ (st_is_special st = true -> nnth s' (nlen ser) = Some 47)
  /\ forallb no_qh (nskipn (nlen ser) s') = true /\ rem_ok rem.
Proof.
  intros Hnf He H. unfold parse_path_start in H.
  assert (forall X, parse_path dbg CUrlParser st hh (nlen ser) (ser ++ [47]) X = POk (s', hh', rem) ->
            agree_pre (nlen ser) ser s' /\ nlen ser <= nlen s'
            /\ (nlen s' = nlen ser \/ nnth s' (nlen ser) = Some 47) /\ (st_is_special st = true -> nnth s' (nlen ser) = Some 47)
            /\ forallb no_qh (nskipn (nlen ser) s') = true /\ rem_ok rem) as Hpush.
  { intros X HX.
    destruct (parse_path_shape dbg st hh (nlen ser) (ser ++ [47]) X s' hh' rem Hnf
                ltac:(rewrite nlen_app; change (nlen [47]) with 1; lia) (nnth_last ser 47)
                ltac:(rewrite nskipn_app_exact; reflexivity) HX) as (A & B & C & D & E).
    split; [|split; [lia | split; [right; exact C | split; [intros _; exact C | split; [exact D | exact E]]]]].
    eapply agree_pre_trans; [apply agree_pre_app_r | eapply agree_pre_le; [exact A | lia]]. }
  assert (st_is_special st = false -> agree_pre (nlen ser) ser ser /\ nlen ser <= nlen ser
          /\ (nlen ser = nlen ser \/ nnth ser (nlen ser) = Some 47) /\ (st_is_special st = true -> nnth ser (nlen ser) = Some 47)
          /\ forallb no_qh (nskipn (nlen ser) ser) = true) as Hsame.
  { intros Esp. split; [reflexivity|]. split; [lia|]. split; [left; reflexivity|]. split; [congruence|].
    rewrite nskipn_all by lia. reflexivity. }
  unfold inp_split_first in H. destruct (inp_next l) as [[c r]|] eqn:En.
  - destruct (st_is_special st) eqn:Esp.
    + rewrite (He eq_refl) in H. cbn [negb] in H. destruct (is_slash_or_bslash c); apply (Hpush _ H).
    + destruct ((c =? 63) || (c =? 35)) eqn:Eq.
      * inversion H; subst. destruct (Hsame eq_refl) as (A & B & C & C' & D). repeat split; try assumption.
        unfold rem_ok. rewrite En. exact Eq.
      * destruct (c =? 47) eqn:E47; [|apply (Hpush _ H)].
        apply N.eqb_eq in E47. subst c. unfold parse_path in H. rewrite (loop_drop_tnl dbg st) in H.
        unfold inp_next in En. destruct (drop_while is_tnl l) as [|c' r'] eqn:Ed; [discriminate|].
        inversion En; subst c' r'.
        assert (is_tnl 47 = false) as Et by reflexivity.
        cbn [parse_path_loop] in H. rewrite Et in H. cbn [ctx_eqb negb andb push_pending] in H.
        rewrite N.eqb_refl in H. cbn [orb] in H.
        rewrite (finish_empty_seg dbg st Hnf (nlen ser) ser true hh) in H. cbn [pbind] in H.
        apply (Hpush r). unfold parse_path. exact H.
  - assert (parse_path dbg CUrlParser st hh (nlen ser) ser l = POk (ser, hh, [])) as Enone.
    { unfold parse_path. rewrite (loop_drop_tnl dbg st). unfold inp_next in En.
      destruct (drop_while is_tnl l) as [|c' r']; [|discriminate].
      cbn [parse_path_loop push_pending]. rewrite (finish_empty_seg dbg st Hnf (nlen ser) ser false hh). cbn [pbind].
      unfold file_path_fixup. rewrite Hnf. reflexivity. }
    destruct (st_is_special st) eqn:Esp.
    + rewrite (He eq_refl) in H. cbn [negb] in H. apply (Hpush _ H).
    + rewrite Enone in H. inversion H; subst. destruct (Hsame eq_refl) as (A & B & C & C' & D). repeat split; try assumption.
Qed.

(* the opaque-path state writes no '?' / '#' and stops in front of one *)
Lemma cbb_path_shape l : forall ser, exists x,
  fst (parse_cannot_be_a_base_path CUrlParser ser l) = ser ++ x /\ forallb no_qh x = true.
Proof.
  induction l as [|c r IH]; intros ser; cbn [parse_cannot_be_a_base_path].
  - exists []. rewrite app_nil_r. split; reflexivity.
  - destruct (is_tnl c); [apply IH|]. cbn [ctx_eqb]. rewrite andb_true_r.
    destruct ((c =? 63) || (c =? 35)) eqn:Eq.
    + exists []. rewrite app_nil_r. split; reflexivity.
    + destruct (IH (push_encoded T_CONTROLS ser [c])) as (x & Ex & Hx). unfold push_encoded in *.
      exists (pe_display T_CONTROLS (utf8_encode [c]) ++ x). rewrite app_assoc. split; [exact Ex|].
      apply forallb_app_iff. split; [|exact Hx]. apply pe_display_char_Q; [exact pct_no_qh|]. unfold no_qh. rewrite Eq. reflexivity.
Qed.

(* 3. query and fragment *)
Lemma parse_query_loop_shape set enc iup l : should_encode set 35 = true -> forall ser part,
  exists x, fst (parse_query_loop set enc iup ser part l) = ser ++ x /\ forallb no_h x = true.
Proof.
  intros H35.
  assert (forall ser part, exists x, flush_part set enc ser part = ser ++ x /\ forallb no_h x = true) as Hfl.
  { intros ser part. unfold flush_part. eexists. split; [reflexivity|]. apply pe_display_no_h. exact H35. }
  induction l as [|c r IH]; intros ser part; cbn [parse_query_loop].
  - cbn [fst]. destruct part as [|p0 pr]; [exists []; rewrite app_nil_r; split; reflexivity | apply Hfl].
  - destruct (is_tnl c).
    + destruct (Hfl ser part) as (x & Ex & Hx). rewrite Ex. destruct (IH (ser ++ x) []) as (y & Ey & Hy).
      exists (x ++ y). rewrite app_assoc. split; [exact Ey|]. apply forallb_app_iff. split; assumption.
    + destruct ((c =? 35) && iup); [cbn [fst]; apply Hfl | apply IH].
Qed.

Definition opt_no_h (q : option (list N)) : Prop := match q with Some x => forallb no_h x = true | None => True end.

Theorem pqf_shape ovr st se ser l s' qs fs :
  parse_query_and_fragment ovr CUrlParser st se ser l = POk (s', qs, fs) ->
  exists q f, s' = ser ++ qf_text q f /\ qs = qf_qs (nlen ser) q /\ fs = qf_fs (nlen ser) q f /\ opt_no_h q.
Proof.
  unfold parse_query_and_fragment. destruct (inp_next l) as [[c r]|].
  2:{ intros H. inversion H; subst. exists None, None. unfold qf_text. cbn. rewrite app_nil_r. repeat split. }
  destruct (c =? 35).
  - destruct (to_u32 (nlen ser)) as [n| |] eqn:Eu; cbn [pbind]; try discriminate.
    apply to_u32_inv in Eu. destruct Eu as [-> _]. intros H. inversion H; subst.
    rewrite parse_fragment_text. exists None, (Some (tnl_text T_FRAGMENT r)).
    unfold qf_text. cbn [qf_qtext qf_ftext qf_qs qf_fs app opt_no_h]. rewrite <- app_assoc.
    repeat split. rewrite nlen_nil, N.add_0_r. reflexivity.
  - destruct (c =? 63); [|discriminate].
    destruct (to_u32 (nlen ser)) as [n| |] eqn:Eu; cbn [pbind]; try discriminate.
    apply to_u32_inv in Eu. destruct Eu as [-> _]. unfold parse_query.
    destruct (parse_query_loop_shape (query_set st) (query_enc ovr (nfirstn se (ser ++ [63]))) (ctx_eqb CUrlParser CUrlParser)
                r (query_sets_encode_hash st) (ser ++ [63]) []) as (x & Ex & Hx).
    destruct (parse_query_loop (query_set st) (query_enc ovr (nfirstn se (ser ++ [63]))) (ctx_eqb CUrlParser CUrlParser)
                (ser ++ [63]) [] r) as [ser1 rm]. cbn [fst] in Ex. subst ser1.
    destruct rm as [r2|].
    + destruct (to_u32 (nlen ((ser ++ [63]) ++ x))) as [n| |] eqn:Eu2; cbn [pbind]; try discriminate.
      apply to_u32_inv in Eu2. destruct Eu2 as [-> _]. intros H. inversion H; subst.
      rewrite parse_fragment_text. exists (Some x), (Some (tnl_text T_FRAGMENT r2)).
      unfold qf_text. cbn [qf_qtext qf_ftext qf_qs qf_fs opt_no_h].
      split; [rewrite <- !app_assoc; reflexivity|]. split; [reflexivity|]. split; [|exact Hx].
      f_equal. rewrite !nlen_app, !nlen_cons, nlen_nil. lia.
    + intros H. inversion H; subst. exists (Some x), None.
      unfold qf_text. cbn [qf_qtext qf_ftext qf_qs qf_fs opt_no_h]. rewrite app_nil_r, <- app_assoc.
      repeat split. exact Hx.
Qed.

(* 4. userinfo *)
(* the state of the second pass: n characters still to read *)
Definition ui_state (ser0 : list N) (n : N) (ser : list N) (uend : option N) (hpw hun : bool) : Prop :=
  (exists x, ser = ser0 ++ x)
  /\ match uend with
     | None => hpw = false /\ (hun = false -> ser = ser0) /\ (n = 0 -> hun = true)
     | Some i => nlen ser0 <= i
                 /\ (if hpw then i < nlen ser /\ nnth ser i = Some 58
                     else n = 0 /\ i = nlen ser /\ (hun = false -> ser = ser0))
     end.

Lemma ui_state_app ser0 n n' ser x i hun hun' :
  ui_state ser0 n ser (Some i) true hun -> ui_state ser0 n' (ser ++ x) (Some i) true hun'.
Proof.
  intros [[y ->] (H1 & H2 & H3)]. split; [exists (y ++ x); rewrite app_assoc; reflexivity|].
  split; [exact H1|]. split; [rewrite nlen_app; lia|]. rewrite nnth_app_lt by exact H2. exact H3.
Qed.

Lemma uloop_shape ser0 l : forall n ser uend hpw hun ser1 uend1 hpw1 hun1,
  userinfo_loop l n ser uend hpw hun = POk (ser1, uend1, hpw1, hun1) ->
  ui_state ser0 n ser uend hpw hun -> ui_state ser0 0 ser1 uend1 hpw1 hun1.
Proof.
  induction l as [|c r IH]; intros n ser uend hpw hun ser1 uend1 hpw1 hun1 H I.
  - cbn [userinfo_loop] in H. destruct (n =? 0) eqn:E0; [|discriminate]. inversion H; subst.
    apply N.eqb_eq in E0. subst n. exact I.
  - cbn [userinfo_loop] in H. destruct (n =? 0) eqn:E0.
    { inversion H; subst. apply N.eqb_eq in E0. subst n. exact I. }
    apply N.eqb_neq in E0.
    destruct (is_tnl c); [eapply IH; [exact H | exact I]|].
    destruct uend as [i|].
    + (* username_end already fixed *)
      rewrite andb_false_r in H. destruct I as [Ix (I1 & I2)]. destruct hpw.
      * eapply IH; [exact H|]. unfold push_encoded. apply (ui_state_app ser0 n _ ser _ i hun _). split; [exact Ix|]. split; [exact I1 | exact I2].
      * destruct I2 as (I2 & _). contradiction.
    + rewrite andb_true_r in H. destruct I as [[x ->] (I1 & I2 & I3)]. subst hpw.
      destruct (c =? 58).
      * destruct (to_u32 (nlen (ser0 ++ x))) as [ue| |] eqn:Eu; cbn [pbind] in H; try discriminate.
        apply to_u32_inv in Eu. destruct Eu as [-> _].
        destruct (0 <? n - 1) eqn:En.
        -- eapply IH; [exact H|]. split; [exists (x ++ [58]); rewrite app_assoc; reflexivity|].
           split; [rewrite nlen_app; lia|]. split; [rewrite !nlen_app; change (nlen [58]) with 1; lia|].
           apply nnth_last.
        -- eapply IH; [exact H|]. split; [exists x; reflexivity|].
           split; [rewrite nlen_app; lia|]. split; [lia|]. split; [reflexivity | exact I2].
      * eapply IH; [exact H|]. unfold push_encoded. split; [eexists; rewrite <- app_assoc; reflexivity|].
        split; [reflexivity|]. split; [discriminate | reflexivity].
Qed.

(* what parse_userinfo leaves: nothing (username_end = host_start = old length), or
   "user:pw@" with username_end at the ':', or "user@" / ":@"-less forms with username_end at the '@' *)
Theorem parse_userinfo_shape st ser0 l ser1 ue rem :
  parse_userinfo st ser0 l = POk (ser1, ue, rem) ->
  exists x, ser1 = ser0 ++ x
    /\ ((x = [] /\ ue = nlen ser0)
        \/ (nlen ser0 <= ue /\ nnth ser1 ue = Some 58 /\ ue + 2 <= nlen ser1 /\ nnth ser1 (nlen ser1 - 1) = Some 64)
        \/ (nlen ser0 <= ue /\ nnth ser1 ue = Some 64 /\ nlen ser1 = ue + 1)).
Proof.
  assert (forall u, u = nlen ser0 -> exists x, ser0 = ser0 ++ x
            /\ ((x = [] /\ u = nlen ser0)
                \/ (nlen ser0 <= u /\ nnth ser0 u = Some 58 /\ u + 2 <= nlen ser0 /\ nnth ser0 (nlen ser0 - 1) = Some 64)
                \/ (nlen ser0 <= u /\ nnth ser0 u = Some 64 /\ nlen ser0 = u + 1))) as Hnone.
  { intros u ->. exists []. rewrite app_nil_r. split; [reflexivity|]. left. split; reflexivity. }
  unfold parse_userinfo. destruct (scan_last_at (st_is_special st) l 0 None) as [[n rm]|].
  - destruct n as [|p].
    + destruct (inp_next rm) as [[c r]|]; [|discriminate].
      destruct ((c =? 47) || (c =? 63) || (c =? 35) || st_is_special st && (c =? 92)); [discriminate|].
      destruct (to_u32 (nlen ser0)) as [u| |] eqn:Eu; cbn [pbind]; try discriminate.
      apply to_u32_inv in Eu. destruct Eu as [Eu _]. intros H. inversion H; subst. apply Hnone. reflexivity.
    + destruct (userinfo_loop l (N.pos p) ser0 None false false) as [[[[s1 uend] hpw] hun]| |] eqn:E; cbn [pbind]; try discriminate.
      assert (ui_state ser0 (N.pos p) ser0 None false false) as I0.
      { split; [exists []; rewrite app_nil_r; reflexivity|]. split; [reflexivity|]. split; [reflexivity | lia]. }
      pose proof (uloop_shape ser0 l _ _ _ _ _ _ _ _ _ E I0) as [[x ->] I].
      destruct uend as [i|].
      * cbn [pbind]. intros H. inversion H; subst. destruct I as (I1 & I2). destruct hpw.
        -- destruct I2 as (I2 & I3). rewrite orb_true_r. exists (x ++ [64]). rewrite app_assoc. split; [reflexivity|].
           right. left. split; [exact I1|]. split; [rewrite nnth_app_lt by exact I2; exact I3|].
           rewrite !nlen_app in *. change (nlen [64]) with 1.
           split; [lia|]. replace (nlen ser0 + nlen x + 1 - 1) with (nlen (ser0 ++ x)) by (rewrite nlen_app; lia).
           apply nnth_last.
        -- destruct I2 as (_ & I2 & I3). rewrite orb_false_r. destruct hun.
           ++ exists (x ++ [64]). rewrite app_assoc. split; [reflexivity|]. right. right.
              split; [exact I1|]. subst ue. split; [apply nnth_last|]. rewrite nlen_app. reflexivity.
           ++ specialize (I3 eq_refl). exists []. rewrite app_nil_r. split; [exact I3|]. left. split; [reflexivity|].
              rewrite I2, I3. reflexivity.
      * destruct I as (_ & _ & I3). specialize (I3 eq_refl). subst hun.
        destruct (to_u32 (nlen (ser0 ++ x))) as [u| |] eqn:Eu; cbn [pbind]; try discriminate.
        apply to_u32_inv in Eu. destruct Eu as [-> _]. intros H. inversion H; subst. cbn [orb].
        exists (x ++ [64]). rewrite app_assoc. split; [reflexivity|]. right. right.
        split; [rewrite nlen_app; lia|]. split; [apply nnth_last|]. rewrite nlen_app. reflexivity.
  - destruct (to_u32 (nlen ser0)) as [u| |] eqn:Eu; cbn [pbind]; try discriminate.
    apply to_u32_inv in Eu. destruct Eu as [Eu _]. intros H. inversion H; subst. apply Hnone. reflexivity.
Qed.

(* 5. host and port *)
Definition ptext (pt : option N) : list N := match pt with Some p => 58 :: decimal p | None => [] end.

Lemma port_loop_le ctx l : forall p0 any p any' rem, p0 <= 65535 ->
  parse_port_loop ctx l p0 any = POk (p, any', rem) -> p <= 65535.
Proof.
  induction l as [|c r IH]; intros p0 any p any' rem Hp H; cbn [parse_port_loop] in H.
  - inversion H; subst. exact Hp.
  - destruct (is_tnl c); [eapply IH; eassumption|].
    destruct (is_digit c).
    + destruct (65535 <? p0 * 10 + (c - 48)) eqn:E; [discriminate|]. eapply IH; [|exact H]. lia.
    + destruct (ctx_eqb ctx CUrlParser && negb (is_path_end c)); [discriminate|]. inversion H; subst. exact Hp.
Qed.

Lemma parse_port_le ctx dflt l pt rem : parse_port ctx dflt l = POk (pt, rem) ->
  match pt with Some p => p <= 65535 | None => True end.
Proof.
  unfold parse_port. destruct (parse_port_loop ctx l 0 false) as [[[p any] rm]| |] eqn:E; cbn [pbind]; try discriminate.
  apply port_loop_le in E; [|lia].
  destruct (negb any && ctx_eqb ctx CSetter && negb (inp_is_empty rm)); [discriminate|].
  destruct (negb any || opt_eqb (Some p) dflt); intros H; inversion H; subst; [exact I | exact E].
Qed.

(* the port state never returns the default port it is given *)
Lemma parse_port_pn ctx dflt l p r : parse_port ctx dflt l = POk (Some p, r) -> dflt <> Some p.
Proof.
  unfold parse_port. destruct (parse_port_loop ctx l 0 false) as [[[p0 any] rm]| |]; cbn [pbind]; try discriminate.
  destruct (negb any && ctx_eqb ctx CSetter && negb (inp_is_empty rm)); [discriminate|].
  destruct (negb any || opt_eqb (Some p0) dflt) eqn:Ed; intros H; inversion H; subst.
  apply orb_false_iff in Ed. destruct Ed as [_ Ed]. intros ->. cbn in Ed. rewrite N.eqb_refl in Ed. discriminate.
Qed.

(* the last byte of "...:port" is a digit *)
Lemma decimal_rev_head fuel n : exists d r, decimal_rev (S fuel) n = d :: r /\ 48 <= d /\ d <= 57.
Proof. cbn [decimal_rev]. eexists. eexists. split; [reflexivity|]. lia. Qed.

Lemma port_text_last p X : ends_with_byte 47 (X ++ 58 :: decimal p) = false.
Proof.
  unfold ends_with_byte, decimal. destruct (decimal_rev_head 39 p) as (d & r & E & H1 & H2).
  change (S 39) with 40%nat in E. rewrite E.
  replace (X ++ 58 :: rev (d :: r)) with ((X ++ [58]) ++ rev (d :: r)) by (rewrite <- app_assoc; reflexivity).
  rewrite rev_app_distr, rev_involutive. cbn [app]. lia.
Qed.

(* what wf_b needs to know about the host functions: a host other than the empty one is displayed as a
   non-empty text that does not start with ':' or '@' and does not end with '/'; the empty host as nothing *)
Definition host_text_wf (t : list N) : Prop :=
  t <> [] /\ nnth t 0 <> Some 58 /\ nnth t 0 <> Some 64 /\ ends_with_byte 47 t = false.
Definition HostWf (hp hpo : list N -> result host) (hd : host -> list N) : Prop :=
  (forall s h, hp s = Ok h -> h <> HDomain [] -> host_text_wf (hd h))
  /\ (forall s h, hpo s = Ok h -> h <> HDomain [] -> host_text_wf (hd h))
  /\ hd (HDomain []) = [].

Lemma host_eq_dec_empty (h : host) : {h = HDomain []} + {h <> HDomain []}.
Proof. destruct h as [[|c d]|a|p]; [left; reflexivity | right; discriminate | right; discriminate | right; discriminate]. Qed.

Section HostPort.
Variable hp hpo : list N -> result host.
Variable hd : host -> list N.
Hypothesis HW : HostWf hp hpo hd.

Theorem phap_shape st se ser l ser2 he hi pt rem : st_is_file st = false ->
  parse_host_and_port hp hpo hd CUrlParser st se ser l = POk (ser2, he, hi, pt, rem) ->
  exists h, ser2 = ser ++ hd h ++ ptext pt /\ he = nlen ser + nlen (hd h) /\ hi = hi_of_host h
    /\ match pt with Some p => p <= 65535 | None => True end
    /\ ((h = HDomain [] /\ hd h = [] /\ pt = None /\ st_is_special st = false) \/ host_text_wf (hd h)).
Proof.
  intros Hnf. destruct HW as (W1 & W2 & W3). unfold parse_host_and_port.
  destruct (parse_host hp hpo st l) as [[h remaining]| |] eqn:Eh; cbn [pbind]; try discriminate.
  assert (h = HDomain [] \/ host_text_wf (hd h)) as Hh.
  { destruct (host_eq_dec_empty h) as [E|E]; [left; exact E|]. right.
    unfold parse_host in Eh. rewrite Hnf in Eh.
    destruct (host_scan (st_is_special st) false [] l) as [t rm].
    destruct (scheme_type_eqb st STSpecialNotFile && match t with [] => true | _ => false end); [discriminate|].
    destruct (negb (st_is_special st)).
    - destruct (hpo t) as [h0|e] eqn:Ep; cbn [of_result pbind] in Eh; [|discriminate].
      inversion Eh; subst. eapply W2; eassumption.
    - destruct (hp t) as [h0|e] eqn:Ep; cbn [of_result pbind] in Eh; [|discriminate].
      inversion Eh; subst. eapply W1; eassumption. }
  destruct (to_u32 (nlen (ser ++ hd h))) as [n| |] eqn:Eu; cbn [pbind]; try discriminate.
  apply to_u32_inv in Eu. destruct Eu as [-> _].
  match goal with |- pbind ?e _ = _ -> _ => destruct e as [[]| |] eqn:Ee; cbn [pbind]; try discriminate end.
  destruct (inp_split_prefix_char 58 remaining) as [rm|] eqn:E58.
  - destruct (parse_port CUrlParser (default_port (nfirstn se (ser ++ hd h))) rm) as [[p rm2]| |] eqn:Ep; cbn [pbind]; try discriminate.
    intros H. inversion H; subst. exists h. pose proof (parse_port_le _ _ _ _ _ Ep) as Hp.
    split; [destruct pt; cbn [ptext]; [rewrite <- app_assoc; reflexivity | rewrite !app_nil_r; reflexivity]|].
    split; [apply nlen_app|]. split; [reflexivity|]. split; [exact Hp|].
    destruct Hh as [->|Hh]; [|right; exact Hh]. exfalso.
    unfold inp_starts_with_char in Ee. unfold inp_split_prefix_char in E58.
    destruct (inp_next remaining) as [[d r0]|]; [|discriminate]. destruct (d =? 58); discriminate.
  - intros H. inversion H; subst. exists h. cbn [ptext]. rewrite app_nil_r.
    split; [reflexivity|]. split; [apply nlen_app|]. split; [reflexivity|]. split; [exact I|].
    destruct Hh as [->|Hh]; [|right; exact Hh]. left. rewrite W3. repeat split.
    destruct (inp_starts_with_char 58 rem); [discriminate|]. destruct (st_is_special st); [discriminate | reflexivity].
Qed.
End HostPort.
