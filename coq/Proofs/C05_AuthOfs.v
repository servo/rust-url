(* Proofs/C05_AuthOfs.v - "a special scheme is followed by ://" as an invariant, first half: the mutators.
   AO u := scheme_end u + 3 <= username_end u.  On a well-formed record this is has_authority_b u = true
   (wf_authority starts with it, wf_no_authority says username_end = scheme_end + 1), so it can be followed
   through the mutators by looking at the two offsets alone - no reasoning about the serialization:
     sf u u' : scheme_end and username_end are the same (fragment, query, path, port, password, sessions);
     set_host_internal adds 2 to username_end or keeps it; set_username writes behind scheme_end + 3;
     set_scheme shifts both offsets by the same amount; set_host(None) is the one mutator that removes
     "//" - and only for a scheme that is not special (file keeps "file://").
   AS u := special scheme -> AO u;  as_bk : wf_b u -> AS u -> bk u (the second half of base_ok). *)
From RU Require Import Base.Prelude Base.Utf8 Model.AsciiSet Gen.Tables Model.PercentEncoding
  Model.HostT Model.UrlRecord Model.Parser Model.Setters Model.WF
  Proofs.ListN Proofs.C03_WF Proofs.C05_Enc Proofs.C05_Parser Proofs.C05_Setters
  Proofs.C06_List Proofs.C06_WFI Proofs.C06_Tail Proofs.C06_Steps Proofs.C06_Suffix Proofs.C06_FragQuery Proofs.C04_ParseTotal
  Proofs.C05_History Proofs.C05_BaseOk.

Definition AO (u : url) : Prop := scheme_end u + 3 <= username_end u.
Definition AS (u : url) : Prop := st_is_special (scheme_type_of (b_scheme u)) = true -> AO u.

(* the same two offsets *)
Definition sf (u u' : url) : Prop := scheme_end u' = scheme_end u /\ username_end u' = username_end u.

Lemma sf_refl u : sf u u.
Proof. split; reflexivity. Qed.
Lemma sf_trans a b c : sf a b -> sf b c -> sf a c.
Proof. intros [A1 A2] [B1 B2]. split; congruence. Qed.
Lemma sf_ao u u' : sf u u' -> AO u -> AO u'.
Proof. intros [A B] H. unfold AO in *. rewrite A, B. exact H. Qed.

(* AO and has_authority_b on well-formed records *)
Lemma wf_ao_auth u : wf_b u = true -> AO u -> has_authority_b u = true.
Proof.
  intros W H. destruct (has_authority_b u) eqn:Ha; [reflexivity|]. exfalso.
  pose proof (nf_ue (wf_noauth_facts u W Ha)) as E. unfold AO in H. lia.
Qed.

Lemma wf_auth_ao u : wf_b u = true -> has_authority_b u = true -> AO u.
Proof. intros W Ha. pose proof (af_ue (wf_auth_facts u W Ha)) as E. unfold AO. lia. Qed.

Lemma auth_sl1 u : has_authority_b u = true -> sl1 u.
Proof.
  intros Ha. unfold has_authority_b in Ha. apply css_bytes in Ha. destruct Ha as (_ & C1 & _). exact C1.
Qed.

Theorem as_bk u : wf_b u = true -> AS u -> bk u.
Proof. intros W H Hs. apply auth_sl1. apply (wf_ao_auth u W). exact (H Hs). Qed.

Theorem as_base_ok u : wf_b u = true -> AS u -> base_ok u = true.
Proof. intros W H. apply base_ok_iff. split; [exact W | exact (as_bk u W H)]. Qed.

Section Ofs.
Variable dbg : bool.
Variable hp hpo : list N -> result host.
Variable hd : host -> list N.

Lemma strip_sf u u' : strip_trailing_spaces_from_opaque_path u = Some u' -> sf u u'.
Proof.
  unfold strip_trailing_spaces_from_opaque_path. intros H. ob H cbb Hc.
  destruct (negb cbb); [inversion H; subst; apply sf_refl|].
  destruct (fragment_start u); [inversion H; subst; apply sf_refl|].
  destruct (query_start u); inversion H; subst; split; reflexivity.
Qed.

Lemma set_fragment_sf u f u' : set_fragment dbg u f = Some u' -> sf u u'.
Proof.
  unfold set_fragment. intros H. ob H s0 Hs0. destruct f as [input|].
  - inversion H; subst. split; reflexivity.
  - apply strip_sf in H. destruct H as [A B]. split; [exact A | exact B].
Qed.

Lemma take_fragment_sf u u1 frag : take_fragment dbg u = Some (u1, frag) -> sf u u1.
Proof.
  unfold take_fragment. intros H. destruct (fragment_start u).
  - ob H x Hx. ob H f Hf. inversion H; subst. split; reflexivity.
  - inversion H; subst. apply sf_refl.
Qed.

Lemma restore_fragment_sf u frag u' : restore_already_parsed_fragment u frag = Some u' -> sf u u'.
Proof.
  unfold restore_already_parsed_fragment. intros H. destruct frag as [f|]; [|inversion H; subst; apply sf_refl].
  ob H x Hx. inversion H; subst. split; reflexivity.
Qed.

Lemma set_query_sf u q u' : set_query dbg u q = Some u' -> sf u u'.
Proof.
  unfold set_query. intros H. ob H a Ha. destruct a as [u1 frag]. apply take_fragment_sf in Ha.
  ob H u2 Hu2. ob H u3 Hu3. apply restore_fragment_sf in H.
  assert (sf u1 u2) as H2.
  { destruct (query_start u1).
    - ob Hu2 x Hx. inversion Hu2; subst. split; reflexivity.
    - inversion Hu2; subst. apply sf_refl. }
  assert (sf u2 u3) as H3.
  { destruct q as [input|].
    - ob Hu3 st Hst.
      destruct (parse_query None CSetter st (scheme_end u2) (ser u2 ++ [63]) (input_new_trim_tnl input)) as [s r].
      inversion Hu3; subst. split; reflexivity.
    - destruct frag; [inversion Hu3; subst; apply sf_refl | apply strip_sf; exact Hu3]. }
  exact (sf_trans _ _ _ Ha (sf_trans _ _ _ H2 (sf_trans _ _ _ H3 H))).
Qed.

Lemma take_after_path_sf u u1 ap : take_after_path u = Some (u1, ap) -> sf u u1.
Proof.
  unfold take_after_path. intros H.
  destruct (query_start u) as [i|]; [|destruct (fragment_start u) as [i|]].
  3:{ inversion H; subst. apply sf_refl. }
  all: ob H a Ha; inversion H; subst; split; reflexivity.
Qed.

Lemma restore_after_path_sf u op ap u' : restore_after_path dbg u op ap = Some u' -> sf u u'.
Proof.
  unfold restore_after_path. intros H. cbv zeta in H. ob H qs Hq. ob H fs Hf. inversion H; subst. split; reflexivity.
Qed.

Lemma set_path_sf u p u' : set_path dbg u p = Some u' -> sf u u'.
Proof.
  unfold set_path. intros H. ob H a Ha. destruct a as [u1 ap]. apply take_after_path_sf in Ha. cbv zeta in H.
  ob H cbb Hcbb. ob H st Hst. ob H s1 Hs1. apply restore_after_path_sf in H.
  eapply sf_trans; [exact Ha|]. destruct H as [A B]. split; [exact A | exact B].
Qed.

Lemma set_port_internal_sf u p u' : set_port_internal dbg u p = Some u' -> sf u u'.
Proof.
  unfold set_port_internal. intros H.
  destruct (port u) as [old|]; destruct p as [new|].
  4:{ inversion H; subst. apply sf_refl. }
  2:{ ob H s Hs0. ob H rest Hr. ob H x Hx. cbv zeta in H. ob H qs Hq. ob H fs Hf. inversion H; subst. split; reflexivity. }
  - destruct (old =? new); [inversion H; subst; apply sf_refl|].
    ob H pa Hpa. cbv zeta in H. ob H qs Hq. ob H fs Hf. inversion H; subst. split; reflexivity.
  - ob H pa Hpa. cbv zeta in H. ob H qs Hq. ob H fs Hf. inversion H; subst. split; reflexivity.
Qed.

Lemma set_port_sf u p u' st : set_port dbg u p = Some (u', st) -> sf u u'.
Proof.
  unfold set_port. intros H. ob H c Hc. destruct c; [inversion H; subst; apply sf_refl|].
  ob H s Hsch. cbv zeta in H. ob H u1 Hu1. inversion H; subst. eapply set_port_internal_sf; eassumption.
Qed.

Lemma set_host_internal_ao u h onp u' : set_host_internal dbg hd u h onp = Some u' ->
  scheme_end u' = scheme_end u /\ username_end u <= username_end u'.
Proof.
  unfold set_host_internal. intros H. cbv zeta in H. ob H suffix Hsuf. ob H ha Hha. ob H a Ha. destruct a as [[s1 ue] hs].
  assert (username_end u <= ue) as Hue.
  { destruct (negb ha).
    - ob Ha x Hx. inversion Ha; subst. lia.
    - inversion Ha; subst. lia. }
  destruct onp as [np|].
  - destruct np as [p|]; cbv beta iota zeta in H; ob H ps Hps; ob H qs Hq; ob H fs Hf; inversion H; subst; cbn [scheme_end username_end];
      (split; [reflexivity | exact Hue]).
  - cbv beta iota zeta in H. ob H ps Hps. ob H qs Hq. ob H fs Hf. inversion H; subst. cbn [scheme_end username_end].
    split; [reflexivity | exact Hue].
Qed.

Lemma shi_ao u h onp u' : set_host_internal dbg hd u h onp = Some u' -> AO u -> AO u'.
Proof. intros H A. destruct (set_host_internal_ao u h onp u' H) as [E L]. unfold AO in *. rewrite E. lia. Qed.

(* Url::set_host: Some _ keeps AO; None keeps it unless the scheme is not special *)
Lemma set_host_ao u h u' st : set_host dbg hp hpo hd u h = Some (u', st) -> AO u ->
  AO u' \/ exists sty, u_scheme_type u = Some sty /\ st_is_special sty = false.
Proof.
  unfold set_host. intros H A. ob H cbb Hcbb. destruct cbb; [inversion H; subst; left; exact A|].
  ob H sty Hsty. destruct h as [hs|].
  - left.
    destruct ((match hs with [] => true | _ => false end) && st_is_special sty && negb (st_is_file sty));
      [inversion H; subst; exact A|]. cbv zeta in H.
    match type of H with context [if ?c then Some hs else ?e] => destruct (if c then Some hs else e) as [hsub|] end;
      [|inversion H; subst; exact A].
    destruct (if st_is_special sty then hp hsub else hpo hsub) as [host|e] eqn:Eh; [|inversion H; subst; exact A].
    ob H u1 Hu1. inversion H; subst. exact (shi_ao u host None u' Hu1 A).
  - destruct (has_host u); [|inversion H; subst; left; exact A].
    destruct (st_is_special sty && negb (st_is_file sty)) eqn:Esp; [inversion H; subst; left; exact A|]. cbv zeta in H.
    ob H x Hx. ob H y Hy. ob H z Hz. ob H qs Hq. ob H fs Hf. inversion H; subst.
    destruct (st_is_file sty) eqn:Ef.
    + left. unfold AO. cbn [scheme_end username_end]. lia.
    + right. exists sty. split; [exact Hsty|]. destruct (st_is_special sty); [discriminate Esp | reflexivity].
Qed.

Lemma set_ip_host_ao u h u' st : set_ip_host dbg hd u h = Some (u', st) -> AO u -> AO u'.
Proof.
  unfold set_ip_host. intros H A. ob H cbb Hcbb. destruct cbb; [inversion H; subst; exact A|].
  ob H u1 Hu1. inversion H; subst. exact (shi_ao u h None u' Hu1 A).
Qed.

Lemma set_password_sf u pw u' st : set_password dbg u pw = Some (u', st) -> sf u u'.
Proof.
  unfold set_password. intros H. ob H c Hc. destruct c; [inversion H; subst; apply sf_refl|]. cbv zeta in H.
  destruct (match pw with Some x => x | None => [] end) as [|x r].
  - ob H c Hc2. destruct c; [|inversion H; subst; apply sf_refl].
    ob H at_ Hat. ob H y Hy. ob H z Hz. ob H hs Hhs. ob H he Hhe. ob H ps Hps. ob H qs Hq. ob H fs Hf.
    inversion H; subst. split; reflexivity.
  - ob H haa Hhaa. ob H he Hhe. ob H ps Hps. ob H qs Hq. ob H fs Hf. inversion H; subst. split; reflexivity.
Qed.

Lemma slice_o_bounds l a b s : slice_o l a b = Some s -> a <= b /\ b <= nlen l.
Proof.
  unfold slice_o. destruct ((a <=? b) && (b <=? nlen l)) eqn:E; [|discriminate]. intros _.
  apply andb_true_iff in E. lia.
Qed.

Lemma set_username_ao u un u' st : set_username dbg u un = Some (u', st) -> AO u -> AO u'.
Proof.
  unfold set_username. intros H A. ob H c Hc. destruct c; [inversion H; subst; exact A|]. cbv zeta in H.
  ob H x Hx. ob H cur Hcur. destruct (list_eqb cur (utf8_encode un)); [inversion H; subst; exact A|].
  ob H au Hau.
  unfold u_slice in Hcur. apply slice_o_bounds in Hcur. destruct Hcur as [L1 L2].
  set (s := push_encoded T_USERINFO (truncate (ser u) (scheme_end u + 3)) un) in *.
  assert (scheme_end u + 3 <= nlen s) as Ls.
  { unfold s, push_encoded, truncate. rewrite nlen_app, nlen_nfirstn by lia. lia. }
  match type of H with context [match nlen s =? scheme_end u + 3 with true => ?a | false => ?b end] =>
    destruct (match nlen s =? scheme_end u + 3 with true => a | false => b end) as [[s' removed] added] eqn:E end.
  ob H hs Hhs. ob H he Hhe. ob H ps Hps. ob H qs Hq. ob H fs Hf. inversion H; subst.
  unfold AO. cbn [scheme_end username_end]. exact Ls.
Qed.

Lemma adjust_val idx a b r : adjust dbg idx a b = Some r -> a <= idx -> r = idx - a + b.
Proof. intros H L. rewrite (adjust_ok dbg idx a b L) in H. inversion H. reflexivity. Qed.

Lemma set_scheme_ao u sch u' st : set_scheme dbg u sch = Some (u', st) -> AO u -> AO u'.
Proof.
  unfold set_scheme. intros H A.
  destruct (parse_scheme CSetter (input_new_no_trim sch)) as [[ns rem]|] eqn:Esch; [|inversion H; subst; exact A].
  cbv zeta in H. ob H ost Host. ob H ha Hha.
  match type of H with (if ?c then _ else _) = _ => destruct c end; [inversion H; subst; exact A|].
  match type of H with (if ?c then _ else _) = _ => destruct c end; [inversion H; subst; exact A|].
  ob H ue Hue. ob H hs Hhs. ob H he Hhe. ob H ps Hps. ob H qs Hq. ob H fs Hf. ob H rest Hrest.
  ob H r Hr. destruct r as [u2 st2]. cbn [fst] in H. inversion H; subst.
  apply set_port_sf in Hr. apply (sf_ao _ _ Hr). unfold AO in *. cbn [scheme_end username_end].
  apply adjust_val in Hue; [|lia]. lia.
Qed.

(* the new scheme is special only if the old one is *)
Lemma set_scheme_special u sch u' : set_scheme dbg u sch = Some (u', SOk) -> u' = u \/
  exists ns rem ost, parse_scheme CSetter (input_new_no_trim sch) = Some (ns, rem) /\ u_scheme_type u = Some ost
    /\ (st_is_special (scheme_type_of ns) = true -> st_is_special ost = true).
Proof.
  unfold set_scheme. intros H.
  destruct (parse_scheme CSetter (input_new_no_trim sch)) as [[ns rem]|] eqn:Esch; [|inversion H].
  cbv zeta in H. ob H ost Host. ob H ha Hha.
  match type of H with (if ?c then _ else _) = _ => destruct c eqn:Ec end; [inversion H|].
  right. exists ns, rem, ost. split; [reflexivity|]. split; [exact Host|]. intros Hs.
  rewrite Hs in Ec. cbn [negb andb orb] in Ec. destruct (st_is_special ost); [reflexivity | discriminate Ec].
Qed.

Lemma psm_with_url p s : sf (psm_url p) (psm_url (psm_with p s)).
Proof. split; reflexivity. Qed.

Lemma psm_apply_sf p o p' : psm_apply dbg p o = Some p' -> sf (psm_url p) (psm_url p').
Proof.
  destruct o; cbn [psm_apply]; intros H.
  - inversion H; subst. apply psm_with_url.
  - inversion H; subst. unfold psm_pop_if_empty. cbv zeta.
    destruct (nlen (ser (psm_url p)) <=? after_first_slash p); [apply sf_refl|].
    destruct (ends_with_byte 47 (nskipn (after_first_slash p) (ser (psm_url p)))); [apply psm_with_url | apply sf_refl].
  - inversion H; subst. unfold psm_pop. cbv zeta.
    destruct (nlen (ser (psm_url p)) <=? after_first_slash p); [apply sf_refl | apply psm_with_url].
  - unfold psm_push, psm_extend in H. ob H st Hst. ob H s0 Hs0. inversion H; subst. apply psm_with_url.
  - unfold psm_extend in H. ob H st Hst. ob H s0 Hs0. inversion H; subst. apply psm_with_url.
Qed.

Lemma psm_run_sf ops : forall p p', psm_run dbg p ops = Some p' -> sf (psm_url p) (psm_url p').
Proof.
  induction ops as [|o r IH]; intros p p' H; cbn [psm_run] in H; [inversion H; subst; apply sf_refl|].
  ob H p1 Hp1. eapply sf_trans; [exact (psm_apply_sf p o p1 Hp1) | exact (IH p1 p' H)].
Qed.

Lemma path_segments_session_sf u ops u' st : path_segments_session dbg u ops = Some (u', st) -> sf u u'.
Proof.
  unfold path_segments_session, path_segments_mut. intros H. ob H opp Hop. ob Hop cbb Hcbb.
  destruct cbb; [inversion Hop; subst; inversion H; subst; apply sf_refl|].
  ob Hop p Hp. inversion Hop; subst. ob H p' Hp'. ob H u1 Hu1. inversion H; subst.
  unfold psm_new in Hp. ob Hp a Ha. destruct a as [u0 ap]. apply take_after_path_sf in Ha. cbv zeta in Hp.
  ob Hp sty Hsty. ob Hp x Hx. inversion Hp; subst p. clear Hp.
  apply psm_run_sf in Hp'. cbn [psm_url] in Hp'. unfold psm_close in Hu1. apply restore_after_path_sf in Hu1.
  exact (sf_trans _ _ _ Ha (sf_trans _ _ _ Hp' Hu1)).
Qed.

Lemma q_set_host_ao u v u' st : q_set_host dbg hp hpo hd u v = Some (u', st) -> AO u -> AO u'.
Proof.
  unfold q_set_host. intros H A. ob H cbb Hcbb. destruct cbb; [inversion H; subst; exact A|].
  ob H sc Hsc. cbv zeta in H.
  destruct (scheme_type_eqb (scheme_type_of sc) STFile && match v with [] => true | _ => false end).
  { ob H u1 Hu1. inversion H; subst. exact (shi_ao u _ _ u' Hu1 A). }
  ob H r Hr. destruct r as [[h remaining]|]; [|inversion H; subst; exact A].
  ob H opp Hop. ob H un Hun.
  match type of H with (if ?c then _ else _) = _ => destruct c end; [inversion H; subst; exact A|].
  ob H u1 Hu1. inversion H; subst. exact (shi_ao u _ _ u' Hu1 A).
Qed.

Lemma q_set_hostname_ao u v u' st : q_set_hostname dbg hp hpo hd u v = Some (u', st) -> AO u -> AO u'.
Proof.
  unfold q_set_hostname. intros H A. ob H cbb Hcbb. destruct cbb; [inversion H; subst; exact A|].
  ob H sc Hsc. cbv zeta in H.
  destruct (scheme_type_eqb (scheme_type_of sc) STFile && match v with [] => true | _ => false end).
  { ob H u1 Hu1. inversion H; subst. exact (shi_ao u _ _ u' Hu1 A). }
  ob H r Hr. destruct r as [[h remaining]|]; [|inversion H; subst; exact A].
  ob H reject Hrej. destruct reject; [inversion H; subst; exact A|].
  ob H u1 Hu1. inversion H; subst. exact (shi_ao u _ _ u' Hu1 A).
Qed.

Lemma q_set_port_sf u v u' st : q_set_port dbg u v = Some (u', st) -> sf u u'.
Proof.
  unfold q_set_port. intros H. ob H c Hc. destruct c; [inversion H; subst; apply sf_refl|].
  ob H sc Hsc. destruct (parse_port CSetter (default_port sc) (input_new_no_trim v)) as [[p r]| |]; [| |discriminate].
  - ob H u1 Hu1. inversion H; subst. eapply set_port_internal_sf; eassumption.
  - inversion H; subst. apply sf_refl.
Qed.

Lemma q_set_pathname_sf u v u' : q_set_pathname dbg u v = Some u' -> sf u u'.
Proof.
  unfold q_set_pathname. intros H. ob H cbb Hcbb. destruct cbb; [inversion H; subst; apply sf_refl|].
  ob H st Hst.
  match type of H with (if ?c then _ else _) = _ => destruct c end; [eapply set_path_sf; eassumption|].
  match type of H with (if ?c then _ else _) = _ => destruct c end; eapply set_path_sf; eassumption.
Qed.

Theorem apply_op_ao u o u' : apply_op dbg hp hpo hd u o = Some u' -> AO u ->
  AO u' \/ exists sty, u_scheme_type u = Some sty /\ st_is_special sty = false.
Proof.
  intros H A. destruct o; cbn [apply_op] in H; try (apply drop_status_some in H; destruct H as [st H]).
  - left. exact (sf_ao _ _ (set_fragment_sf u f u' H) A).
  - left. exact (sf_ao _ _ (set_query_sf u q u' H) A).
  - left. exact (sf_ao _ _ (set_path_sf u p u' H) A).
  - left. exact (sf_ao _ _ (set_port_sf u p u' st H) A).
  - exact (set_host_ao u h u' st H A).
  - left. exact (set_ip_host_ao u h u' st H A).
  - left. exact (sf_ao _ _ (set_password_sf u p u' st H) A).
  - left. exact (set_username_ao u s u' st H A).
  - left. exact (set_scheme_ao u s u' st H A).
  - left. exact (sf_ao _ _ (path_segments_session_sf u ops u' st H) A).
  - left. unfold q_set_protocol in H. cbv zeta in H. exact (set_scheme_ao u _ u' st H A).
  - left. exact (set_username_ao u v u' st H A).
  - left. unfold q_set_password in H. exact (sf_ao _ _ (set_password_sf u _ u' st H) A).
  - left. exact (q_set_host_ao u v u' st H A).
  - left. exact (q_set_hostname_ao u v u' st H A).
  - left. exact (sf_ao _ _ (q_set_port_sf u v u' st H) A).
  - left. exact (sf_ao _ _ (q_set_pathname_sf u v u' H) A).
  - left. unfold q_set_search in H. exact (sf_ao _ _ (set_query_sf u _ u' H) A).
  - left. unfold q_set_hash in H. exact (sf_ao _ _ (set_fragment_sf u _ u' H) A).
Qed.

End Ofs.
