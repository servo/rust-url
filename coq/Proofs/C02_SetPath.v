(* Proofs/C02_SetPath.v - L2 for Url::set_path (and url::quirks::set_pathname) on the canonical records with authority.
   The setter cuts the serialization behind the path, runs the path start state (setter context) on the argument
   behind everything in front of the path, and re-attaches query and fragment with shifted offsets.  By
   C02_PathSetter the new path text is canonical whatever the argument, so the result is the canonical record with
   the new path. *)
From RU Require Import Base.Prelude Base.Utf8 Base.Utf8Facts Model.AsciiSet Gen.Tables
  Model.PercentEncoding Model.HostT Model.UrlRecord Model.Parser Model.Setters Model.WF
  Proofs.ListN Proofs.C14_Set Proofs.C14_Enc Proofs.C14_Views Proofs.C02_Enc Proofs.C02_Parts
  Proofs.C02_Opaque Proofs.C02_Path Proofs.C02_PathL1 Proofs.C02_Reach Proofs.C16_RT Proofs.C02_AuthParts
  Proofs.C02_Auth Proofs.C02_AuthWf Proofs.C02_PathSp Proofs.C02_AuthSp Proofs.C02_AuthMain Proofs.C02_SetQF
  Proofs.C02_Canon Proofs.C02_SetPort Proofs.C02_SetHostFrame Proofs.C02_SetScheme Proofs.C02_PathSetter.
Open Scope N_scope.
Open Scope list_scope.

Section Frame.
Variable dbg : bool.

(* cutting query and fragment off, and putting them back behind a new text *)
Lemma take_after_path_qf pre se ue hs he hi pt ps q f :
  take_after_path (qf_url pre se ue hs he hi pt ps q f)
  = Some (mkUrl pre se ue hs he hi pt ps (qf_qs (nlen pre) q) (qf_fs (nlen pre) q f), qf_text q f).
Proof.
  unfold take_after_path. set (U := qf_url pre se ue hs he hi pt ps q f).
  assert (forall i, i = nlen pre ->
            (a <- u_slice_from U i ;; Some (set_ser U (truncate (ser U) i), a))
            = Some (mkUrl pre se ue hs he hi pt ps (qf_qs (nlen pre) q) (qf_fs (nlen pre) q f), qf_text q f)) as G.
  { intros i ->. unfold u_slice_from, U, qf_url. cbn [ser].
    rewrite slice_from_o_some by (rewrite nlen_app; lia). rewrite nskipn_app_len. cbn [bindo].
    unfold truncate. rewrite nfirstn_app_len. reflexivity. }
  destruct q as [x|]; [exact (G _ eq_refl) | destruct f as [y|]].
  - apply G. cbn [qf_qtext]. rewrite nlen_nil. lia.
  - unfold U. rewrite U_none_none. reflexivity.
Qed.

Lemma restore_after_path_qf pre s1 se ue hs he hi pt ps q f :
  restore_after_path dbg (mkUrl s1 se ue hs he hi pt ps (qf_qs (nlen pre) q) (qf_fs (nlen pre) q f)) (nlen pre) (qf_text q f)
  = Some (qf_url s1 se ue hs he hi pt ps q f).
Proof.
  unfold restore_after_path, set_ser. cbn [ser query_start fragment_start].
  rewrite adjust_qf_qs, adjust_qf_fs by lia. rewrite N.sub_diag. reflexivity.
Qed.

(* F = everything in front of the path, P the path; a '/' follows scheme ":", so the record is not cannot-be-a-base *)
Theorem set_path_hier sch Z P ue hs he hi pt q f x u' : starts_with [47] (Z ++ P) = true ->
  set_path dbg (qf_url ((sch ++ 58 :: Z) ++ P) (nlen sch) ue hs he hi pt (nlen (sch ++ 58 :: Z)) q f) x = Some u' ->
  exists s1 hh rm, parse_path_start dbg CSetter (scheme_type_of sch) true (sch ++ 58 :: Z) x = POk (s1, hh, rm)
                   /\ u' = qf_url s1 (nlen sch) ue hs he hi pt (nlen (sch ++ 58 :: Z)) q f.
Proof.
  intros H47. unfold set_path. rewrite take_after_path_qf. cbn [bindo]. unfold u_scheme_type.
  rewrite <- app_assoc. rewrite scheme_prefix. cbn [app]. rewrite cbb_prefix, H47. cbn [bindo negb].
  cbn [ser path_start]. unfold truncate. change (sch ++ 58 :: Z ++ P) with (sch ++ (58 :: Z) ++ P).
  rewrite app_assoc, nfirstn_app_len.
  destruct (parse_path_start dbg CSetter (scheme_type_of sch) true (sch ++ 58 :: Z) x) as [[[s1 hh] rm]|e|] eqn:Ep;
    cbn [unpres bindo]; try discriminate.
  unfold set_ser. cbn [ser scheme_end username_end host_start host_end hosti port path_start query_start fragment_start].
  rewrite restore_after_path_qf. intros E. inversion E; subst u'. exists s1, hh, rm. split; reflexivity.
Qed.

Theorem set_path_frame sch Y P ue hs he hi pt q f x u' :
  set_path dbg (qf_url ((sch ++ 58 :: 47 :: Y) ++ P) (nlen sch) ue hs he hi pt (nlen (sch ++ 58 :: 47 :: Y)) q f) x = Some u' ->
  exists s1 hh rm, parse_path_start dbg CSetter (scheme_type_of sch) true (sch ++ 58 :: 47 :: Y) x = POk (s1, hh, rm)
                   /\ u' = qf_url s1 (nlen sch) ue hs he hi pt (nlen (sch ++ 58 :: 47 :: Y)) q f.
Proof. apply set_path_hier. reflexivity. Qed.
End Frame.


Section PathCanon.
Variable dbg : bool.
Variable hp hpo : list N -> result host.
Variable hd : host -> list N.
Hypothesis HRT : HostRT hp hpo hd.

Notation auth_ok := (auth_ok hp hpo hd).
Notation auth_url := (auth_url hd).
Notation auth_ser := (auth_ser hd).
Notation auth_front := (auth_front hd).
Notation Canon := (Canon hp hpo hd).

Lemma auth_front_F sch ui h pt : auth_front sch ui h pt = sch ++ 58 :: 47 :: (47 :: ui_text ui ++ hd h ++ port_text pt).
Proof. unfold C02_Auth.auth_front. rewrite <- app_assoc. reflexivity. Qed.

Lemma auth_ok_path st sch ui h pt p q f p' : auth_ok st sch ui h pt p q f -> pth_ok p' ->
  nlen (auth_ser sch ui h pt p' q f) <= U32_MAX_P -> auth_ok st sch ui h pt p' q f.
Proof.
  intros K Hp Hb. destruct K as [Ksch Kst Kui Kh Kemp Kpt Kp Kq Kf Kb Kbq Kbf].
  destruct (qf_bounds _ _ _ _ Hb) as [B1 B2]. constructor; assumption.
Qed.

Theorem set_path_auth st sch ui h pt p q f x u' : auth_ok st sch ui h pt p q f -> st_is_file st = false -> usv_list x ->
  set_path dbg (auth_url sch ui h pt p q f) x = Some u' -> nlen (ser u') <= U32_MAX_P ->
  exists p', auth_ok st sch ui h pt p' q f /\ (st = STSpecialNotFile -> pth_ok_sp p') /\ u' = auth_url sch ui h pt p' q f.
Proof.
  intros K Hnf Hx E Hb. rewrite auth_url_qf in E. unfold auth_pre in E. rewrite auth_front_F in E.
  apply set_path_frame in E. destruct E as (s1 & hh & rm & Ep & ->).
  rewrite <- auth_front_F in *. rewrite (ak_st _ _ _ _ _ _ _ _ _ _ _ K) in Ep.
  destruct st; [discriminate Hnf| |].
  - destruct (pps_setter_sp dbg _ x true s1 hh rm Hx (front_not_slash hp hpo hd sch ui h pt (ak_h _ _ _ _ _ _ _ _ _ _ _ K)) Ep)
      as (segs & last & Hs & Hl & ->).
    exists (Some (segs, last)).
    assert (qf_url (auth_front sch ui h pt ++ path_text segs last) (nlen sch) (nlen sch + 3 + ui_ulen ui) (nlen sch + 3 + nlen (ui_text ui))
                   (nlen sch + 3 + nlen (ui_text ui) + nlen (hd h)) (hi_of_host h) pt (nlen (auth_front sch ui h pt)) q f
            = auth_url sch ui h pt (Some (segs, last)) q f) as EU by (rewrite auth_url_qf; reflexivity).
    rewrite EU in *. split; [|split; [intros _; split; assumption | reflexivity]].
    apply (auth_ok_path _ sch ui h pt p q f); [exact K | | exact Hb].
    split; [exact (good_segs_sp_good segs Hs) | exact (good_seg_sp_good last Hl)].
  - destruct (pps_setter_ns dbg _ x true s1 hh rm Hx Ep) as (p' & Hp' & ->).
    exists p'.
    assert (qf_url (auth_front sch ui h pt ++ pth_text p') (nlen sch) (nlen sch + 3 + ui_ulen ui) (nlen sch + 3 + nlen (ui_text ui))
                   (nlen sch + 3 + nlen (ui_text ui) + nlen (hd h)) (hi_of_host h) pt (nlen (auth_front sch ui h pt)) q f
            = auth_url sch ui h pt p' q f) as EU by (rewrite auth_url_qf; reflexivity).
    rewrite EU in *. split; [|split; [discriminate | reflexivity]].
    exact (auth_ok_path _ sch ui h pt p q f p' K Hp' Hb).
Qed.

(* the forms without authority *)
Lemma opaque_no_authority sch P q f : starts_with [47] P = false -> has_authority_b (opaque_url sch P q f) = false.
Proof.
  intros HP. unfold has_authority_b. cbn [opaque_url ser scheme_end]. unfold opaque_ser, opaque_pre. rewrite <- !app_assoc.
  rewrite nskipn_app_len. cbn [app starts_with s_css]. rewrite N.eqb_refl. cbn [andb].
  destruct P as [|c r]; cbn [app].
  - unfold qf_text. destruct q; destruct f; reflexivity.
  - cbn [starts_with] in HP. rewrite andb_true_r in HP. cbn [starts_with]. rewrite HP. reflexivity.
Qed.

Lemma noauth_no_authority sch segs last q f : has_authority_b (noauth_url sch (path_text segs last) q f) = false.
Proof.
  unfold has_authority_b. cbn [noauth_url ser scheme_end]. unfold noauth_ser, noauth_pre, marker_of. rewrite <- !app_assoc.
  rewrite nskipn_app_len. cbn [app starts_with s_css]. rewrite N.eqb_refl. cbn [andb].
  destruct (starts_with s_ss (path_text segs last)) eqn:Es; [reflexivity|].
  unfold path_text in *. cbn [app starts_with s_ss] in *. cbn [N.eqb Pos.eqb andb] in *.
  destruct (segs_text segs ++ last) as [|c r] eqn:Er; cbn [app].
  - unfold qf_text. destruct q; destruct f; reflexivity.
  - cbn [starts_with] in *. exact Es.
Qed.

(* L2: set_path keeps Canon on records with an authority, for every argument *)
Theorem set_path_Canon u x u' : Canon u -> has_authority_b u = true -> usv_list x ->
  set_path dbg u x = Some u' -> nlen (ser u') <= U32_MAX_P -> Canon u'.
Proof.
  intros C Ha Hx E Hb. destruct (Canon_cases hp hpo hd u C) as [(sch & P & q & f & K & ->) | [(sch & segs & last & q & f & K & ->) | (st & sch & ui & h & pt & p & q & f & Hnf & K & Kp & ->)]].
  - rewrite (opaque_no_authority sch P q f (ok_Ph _ _ _ _ K)) in Ha. discriminate Ha.
  - rewrite noauth_no_authority in Ha. discriminate Ha.
  - destruct (set_path_auth st sch ui h pt p q f x u' K Hnf Hx E Hb) as (p' & K' & Kp' & ->).
    exact (Canon_auth_st hp hpo hd st sch ui h pt p' q f Hnf K' Kp').
Qed.

(* url::quirks::set_pathname: nothing on an opaque path, otherwise set_path with the argument or '/' argument *)
Theorem q_set_pathname_Canon u x u' : Canon u -> has_authority_b u = true -> usv_list x ->
  q_set_pathname dbg u x = Some u' -> nlen (ser u') <= U32_MAX_P -> Canon u'.
Proof.
  intros C Ha Hx. unfold q_set_pathname.
  destruct (cannot_be_a_base u) as [[|]|]; cbn [bindo]; [intros E _; inversion E; subst; exact C | | discriminate].
  destruct (u_scheme_type u) as [st|]; cbn [bindo]; [|discriminate].
  assert (usv_list (47 :: x)) as Hx' by (apply usv_cons; split; [left; lia | exact Hx]).
  destruct ((match x with 47 :: _ => true | _ => false end) || (st_is_special st && match x with 92 :: _ => true | _ => false end)).
  - exact (set_path_Canon u x u' C Ha Hx).
  - destruct (st_is_special st || negb (match x with [] => true | _ => false end) || negb (has_host u)).
    + exact (set_path_Canon u (47 :: x) u' C Ha Hx').
    + exact (set_path_Canon u x u' C Ha Hx).
Qed.
End PathCanon.
