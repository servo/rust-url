(* Proofs/C06_List.v - list facts for the setter proofs: slices of concatenations, and transfer of
   bytes / pieces between two serializations that share a prefix or a suffix. *)
From RU Require Import Base.Prelude Model.UrlRecord Proofs.ListN.

Lemma nfirstn_app_le n a b : n <= nlen a -> nfirstn n (a ++ b) = nfirstn n a.
Proof.
  unfold nfirstn, nlen. intros H. rewrite firstn_app.
  replace (N.to_nat n - length a)%nat with 0%nat by lia. cbn [firstn]. apply app_nil_r.
Qed.

Lemma nfirstn_app_ge n a b : nlen a <= n -> nfirstn n (a ++ b) = a ++ nfirstn (n - nlen a) b.
Proof.
  unfold nfirstn, nlen. intros H. rewrite firstn_app. rewrite firstn_all2 by lia.
  f_equal. f_equal. lia.
Qed.

Lemma nfirstn_app_exact a b : nfirstn (nlen a) (a ++ b) = a.
Proof. rewrite nfirstn_app_le by lia. apply nfirstn_all. lia. Qed.

Lemma nskipn_app_le n a b : n <= nlen a -> nskipn n (a ++ b) = nskipn n a ++ b.
Proof.
  unfold nskipn, nlen. intros H. rewrite skipn_app.
  replace (N.to_nat n - length a)%nat with 0%nat by lia. reflexivity.
Qed.

Lemma nskipn_app_ge n a b : nlen a <= n -> nskipn n (a ++ b) = nskipn (n - nlen a) b.
Proof.
  unfold nskipn, nlen. intros H. rewrite skipn_app. rewrite skipn_all2 by lia.
  cbn [app]. f_equal. lia.
Qed.

Lemma nskipn_app_exact a b : nskipn (nlen a) (a ++ b) = b.
Proof. rewrite nskipn_app_ge by lia. rewrite N.sub_diag. reflexivity. Qed.

Lemma nnth_app_lt l r i : i < nlen l -> nnth (l ++ r) i = nnth l i.
Proof. unfold nnth, nlen. intros H. apply nth_error_app1. lia. Qed.

Lemma nnth_app_ge l r i : nlen l <= i -> nnth (l ++ r) i = nnth r (i - nlen l).
Proof.
  unfold nnth, nlen. intros H. rewrite nth_error_app2 by lia. f_equal. lia.
Qed.

Lemma nnth_nskipn l a i : nnth (nskipn a l) i = nnth l (a + i).
Proof.
  unfold nnth, nskipn. replace (N.to_nat (a + i)) with (N.to_nat a + N.to_nat i)%nat by lia.
  generalize (N.to_nat a) as n. intros n. revert l. induction n as [|n IH]; intros l; [reflexivity|].
  destruct l as [|x l]; cbn [skipn Nat.add nth_error].
  - destruct (N.to_nat i); reflexivity.
  - apply IH.
Qed.

Lemma nnth_nfirstn l a i : i < a -> nnth (nfirstn a l) i = nnth l i.
Proof.
  unfold nnth, nfirstn. intros H.
  assert (N.to_nat i < N.to_nat a)%nat as H' by lia. revert H'.
  generalize (N.to_nat a) as n. generalize (N.to_nat i) as k. clear. intros k n. revert k l.
  induction n as [|n IH]; intros k l H; [lia|].
  destruct l as [|x l]; [destruct k; reflexivity|].
  destruct k as [|k]; [reflexivity|]. cbn [firstn nth_error]. apply IH. lia.
Qed.

Lemma nfirstn_nfirstn n m l : n <= m -> nfirstn n (nfirstn m l) = nfirstn n l.
Proof.
  unfold nfirstn. intros H. rewrite firstn_firstn. f_equal. lia.
Qed.

Lemma nskipn_nfirstn_comm a b l : nskipn a (nfirstn (a + b) l) = nfirstn b (nskipn a l).
Proof.
  unfold nskipn, nfirstn. replace (N.to_nat (a + b)) with (N.to_nat a + N.to_nat b)%nat by lia.
  generalize (N.to_nat a) as n. generalize (N.to_nat b) as m. clear. intros m n. revert l.
  induction n as [|n IH]; intros l; [reflexivity|].
  destruct l as [|x l]; [cbn [Nat.add firstn skipn]; rewrite firstn_nil; reflexivity|].
  cbn [Nat.add firstn skipn]. apply IH.
Qed.

Lemma nlen_rev l : nlen (rev l) = nlen l.
Proof. unfold nlen. rewrite rev_length. reflexivity. Qed.

Definition agree_pre (a : N) (s s' : list N) : Prop := nfirstn a s' = nfirstn a s.

Lemma agree_pre_le a a0 s s' : agree_pre a s s' -> a0 <= a -> agree_pre a0 s s'.
Proof.
  unfold agree_pre. intros H Hle.
  rewrite <- (nfirstn_nfirstn a0 a s'), <- (nfirstn_nfirstn a0 a s) by exact Hle. rewrite H. reflexivity.
Qed.

Lemma agree_pre_app s t : agree_pre (nlen s) (s ++ t) s.
Proof. unfold agree_pre. rewrite nfirstn_app_exact. apply nfirstn_all. lia. Qed.

Lemma agree_pre_app2 a s t t' : a <= nlen s -> agree_pre a (s ++ t) (s ++ t').
Proof. unfold agree_pre. intros H. rewrite !nfirstn_app_le by exact H. reflexivity. Qed.

Lemma agree_pre_nfirstn a s t : a <= nlen s -> agree_pre a s (nfirstn a s ++ t).
Proof.
  unfold agree_pre. intros H.
  rewrite nfirstn_app_le by (rewrite nlen_nfirstn by exact H; lia).
  apply nfirstn_nfirstn. lia.
Qed.

Lemma pre_nnth a s s' i : agree_pre a s s' -> i < a -> nnth s' i = nnth s i.
Proof.
  unfold agree_pre. intros H Hi.
  rewrite <- (nnth_nfirstn s' a i Hi), <- (nnth_nfirstn s a i Hi). rewrite H. reflexivity.
Qed.

Lemma pre_piece a s s' i j : agree_pre a s s' -> j <= a ->
  nfirstn (j - i) (nskipn i s') = nfirstn (j - i) (nskipn i s).
Proof.
  unfold agree_pre. intros H Hj.
  destruct (N.le_gt_cases i j) as [Hij|Hij].
  - replace j with (i + (j - i)) in H, Hj by lia.
    rewrite <- !nskipn_nfirstn_comm.
    rewrite <- (nfirstn_nfirstn (i + (j - i)) a s'), <- (nfirstn_nfirstn (i + (j - i)) a s) by lia.
    rewrite H. reflexivity.
  - replace (j - i) with 0 by lia. reflexivity.
Qed.

Lemma pre_firstn a s s' n : agree_pre a s s' -> n <= a -> nfirstn n s' = nfirstn n s.
Proof. intros H Hn. apply (agree_pre_le _ _ _ _ H Hn). Qed.

Lemma pre_len a s s' : agree_pre a s s' -> a <= nlen s -> a <= nlen s'.
Proof.
  unfold agree_pre. intros H Ha.
  assert (nlen (nfirstn a s') = a) as E by (rewrite H; apply nlen_nfirstn; exact Ha).
  pose proof (nlen_nfirstn_le a s').
  unfold nlen, nfirstn in *. rewrite firstn_length in *. lia.
Qed.

Definition agree_suf (b b' : N) (s s' : list N) : Prop := nskipn b' s' = nskipn b s.

Lemma agree_suf_app p p' t : agree_suf (nlen p) (nlen p') (p ++ t) (p' ++ t).
Proof. unfold agree_suf. rewrite !nskipn_app_exact. reflexivity. Qed.

Lemma suf_nnth b b' s s' i i' : agree_suf b b' s s' -> b <= i -> i' = i - b + b' -> nnth s' i' = nnth s i.
Proof.
  unfold agree_suf. intros H Hi ->.
  replace (i - b + b') with (b' + (i - b)) by lia. rewrite <- nnth_nskipn, H, nnth_nskipn. f_equal. lia.
Qed.

Lemma suf_skip b b' s s' i i' : agree_suf b b' s s' -> b <= i -> i' = i - b + b' -> nskipn i' s' = nskipn i s.
Proof.
  unfold agree_suf. intros H Hi ->.
  replace (i - b + b') with ((i - b) + b') by lia. rewrite <- nskipn_nskipn, H, nskipn_nskipn. f_equal. lia.
Qed.

Lemma suf_piece b b' s s' i i' n : agree_suf b b' s s' -> b <= i -> i' = i - b + b' ->
  nfirstn n (nskipn i' s') = nfirstn n (nskipn i s).
Proof. intros H Hi E. rewrite (suf_skip _ _ _ _ _ _ H Hi E). reflexivity. Qed.

Lemma suf_len b b' s s' : agree_suf b b' s s' -> b <= nlen s -> b' <= nlen s' -> nlen s' = nlen s - b + b'.
Proof.
  unfold agree_suf. intros H Hb Hb'.
  assert (nlen (nskipn b' s') = nlen (nskipn b s)) as E by (rewrite H; reflexivity).
  rewrite !nlen_nskipn in E. lia.
Qed.

(* the piece [a, b) replaced by x *)
Lemma splice_suf a b x s : a <= nlen s -> agree_suf b (a + nlen x) s (nfirstn a s ++ x ++ nskipn b s).
Proof.
  intros H. unfold agree_suf. rewrite app_assoc.
  replace (a + nlen x) with (nlen (nfirstn a s ++ x)) by (rewrite nlen_app, nlen_nfirstn by exact H; reflexivity).
  apply nskipn_app_exact.
Qed.

Lemma splice_skip a b x s : a <= nlen s -> nskipn a (nfirstn a s ++ x ++ nskipn b s) = x ++ nskipn b s.
Proof.
  intros H. pose proof (nskipn_app_exact (nfirstn a s) (x ++ nskipn b s)) as E.
  rewrite nlen_nfirstn in E by exact H. exact E.
Qed.

Lemma splice_len a b x s : a <= b -> b <= nlen s -> nlen (nfirstn a s ++ x ++ nskipn b s) = a + nlen x + (nlen s - b).
Proof. intros H1 H2. rewrite !nlen_app, nlen_nfirstn, nlen_nskipn by lia. lia. Qed.

(* starts_with looks only at the first |p| bytes *)
Lemma starts_with_firstn p l : starts_with p l = starts_with p (firstn (length p) l).
Proof.
  revert l. induction p as [|x p IH]; intros l; [reflexivity|].
  destruct l as [|y l]; [reflexivity|]. cbn [length firstn starts_with]. rewrite <- IH. reflexivity.
Qed.

Lemma starts_with_nfirstn p l : starts_with p l = starts_with p (nfirstn (nlen p) l).
Proof. unfold nfirstn, nlen. rewrite Nat2N.id. apply starts_with_firstn. Qed.

Lemma starts_with_app_l p P R : starts_with p P = true -> starts_with p (P ++ R) = true.
Proof.
  intros H. apply starts_with_split in H. rewrite H. rewrite <- app_assoc. apply starts_with_app.
Qed.

Lemma pre_starts_with a s s' p i : agree_pre a s s' -> i + nlen p <= a ->
  starts_with p (nskipn i s') = starts_with p (nskipn i s).
Proof.
  intros H Hi. rewrite (starts_with_nfirstn p (nskipn i s')), (starts_with_nfirstn p (nskipn i s)).
  replace (nlen p) with (i + nlen p - i) by lia. rewrite (pre_piece a s s' i (i + nlen p) H Hi). reflexivity.
Qed.

(* forallb over pieces *)
Lemma forallb_nfirstn {f : N -> bool} n l : forallb f l = true -> forallb f (nfirstn n l) = true.
Proof.
  unfold nfirstn. generalize (N.to_nat n) as k. intros k. revert l.
  induction k as [|k IH]; intros l H; [reflexivity|].
  destruct l as [|x l]; [reflexivity|]. cbn [firstn forallb] in *.
  apply andb_true_iff in H. destruct H as [H1 H2]. rewrite H1. cbn [andb]. apply IH. exact H2.
Qed.

Lemma forallb_nskipn {f : N -> bool} n l : forallb f l = true -> forallb f (nskipn n l) = true.
Proof.
  unfold nskipn. generalize (N.to_nat n) as k. intros k. revert l.
  induction k as [|k IH]; intros l H; [exact H|].
  destruct l as [|x l]; [reflexivity|]. cbn [skipn forallb] in *.
  apply andb_true_iff in H. destruct H as [H1 H2]. apply IH. exact H2.
Qed.

Lemma forallb_app_iff {f : N -> bool} a b : forallb f (a ++ b) = true <-> forallb f a = true /\ forallb f b = true.
Proof. rewrite forallb_app. apply andb_true_iff. Qed.

(* the first byte *)
Lemma head_nnth (l : list N) : nnth l 0 = match l with c :: _ => Some c | [] => None end.
Proof. destruct l; reflexivity. Qed.

Lemma agree_pre_app_r s t : agree_pre (nlen s) s (s ++ t).
Proof. unfold agree_pre. rewrite nfirstn_app_exact. symmetry. apply nfirstn_all. lia. Qed.

Lemma agree_pre_sym a s s' : agree_pre a s s' -> agree_pre a s' s.
Proof. unfold agree_pre. intros H. symmetry. exact H. Qed.

Lemma agree_pre_trans a s1 s2 s3 : agree_pre a s1 s2 -> agree_pre a s2 s3 -> agree_pre a s1 s3.
Proof. unfold agree_pre. intros H1 H2. rewrite H2. exact H1. Qed.

Lemma nskipn_cons_of_nnth l i c : nnth l i = Some c -> nskipn i l = c :: nskipn (i + 1) l.
Proof.
  intros H. replace (i + 1) with (1 + i) by lia. rewrite <- nskipn_nskipn.
  rewrite <- (N.add_0_r i) in H. rewrite <- nnth_nskipn in H.
  destruct (nskipn i l) as [|y r]; [discriminate|]. cbn in H. inversion H; subst. reflexivity.
Qed.
