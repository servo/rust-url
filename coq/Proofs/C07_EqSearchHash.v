(* Proofs/C07_EqSearchHash.v - C07 equivalence for the hash and the search setters: on every pair of
   related records (Proofs/C07_Corr.v corr) and for every value, url::quirks::set_hash / set_search
   do not panic and leave a record that is related to the result of the Standard's hash / search
   attribute setter (fragment / query state with a state override, special-query set chosen by the
   scheme, trailing spaces of an opaque path stripped when query and fragment have both become null). *)
From RU Require Import Base.Prelude Base.Utf8 Base.Utf8Facts Model.AsciiSet Gen.Tables Model.PercentEncoding
  Model.HostT Model.UrlRecord Model.Parser Model.Setters Model.WF Model.KnownC01 Model.KnownC07 Spec.Whatwg
  Proofs.ListN Proofs.C03_WF Proofs.C06_List Proofs.C06_WFI Proofs.C06_Tail Proofs.C06_Suffix Proofs.C06_Front
  Proofs.C06_Steps Proofs.C06_FragQuery Proofs.C06_Port Proofs.C06_Main
  Proofs.C02_Enc Proofs.C01_Tables Proofs.C01_EqRun Proofs.C01_EqEnc Proofs.C01_EqApi
  Proofs.C07_Defs Proofs.C07_Setters Proofs.C07_Corr Proofs.C07_SpecRun.

Lemma notnl_is_filter x : notnl x = filter not_tnl x.
Proof. reflexivity. Qed.

Lemma filter_rev_N (p : N -> bool) l : filter p (rev l) = rev (filter p l).
Proof.
  induction l as [|c r IH]; [reflexivity|]. cbn [rev filter]. rewrite filter_app, IH. cbn [filter].
  destruct (p c); [reflexivity | apply app_nil_r].
Qed.

Lemma filter_drop_while_tnl l : filter not_tnl (drop_while is_tnl l) = filter not_tnl l.
Proof.
  induction l as [|c r IH]; [reflexivity|]. cbn [drop_while filter]. unfold not_tnl at 2.
  destruct (is_tnl c) eqn:E; cbn [negb]; [exact IH|]. cbn [filter]. unfold not_tnl at 1. rewrite E. reflexivity.
Qed.

Lemma filter_trim_tnl x : filter not_tnl (input_new_trim_tnl x) = filter not_tnl x.
Proof.
  unfold input_new_trim_tnl, trim_matches.
  rewrite filter_rev_N, filter_drop_while_tnl, filter_rev_N, rev_involutive. apply filter_drop_while_tnl.
Qed.

Lemma fragment_text_bridge x : usv_list x -> tnl_text T_FRAGMENT x = upe in_fragment_set (notnl x).
Proof.
  intros H. rewrite (tnl_text_spec _ _ H). change (notnl x) with (filter not_tnl x).
  apply (enc_bridge T_FRAGMENT in_fragment_set _ rel_FRAGMENT).
Qed.

Lemma rstrip_is_strip_trailing p : rstrip (fun c => c =? 32) p = strip_trailing (fun c => c =? 32) p.
Proof.
  unfold rstrip, strip_trailing.
  rewrite (drop_leading_is_drop_while (fun c => c =? 32) (fun c => c =? 32) (rev p) (fun c => eq_refl)). reflexivity.
Qed.

(* potentially strip trailing spaces from an opaque path, as a test *)
Definition strips (su : spec_url) : bool :=
  has_opaque_path su && negb (opt_is_some (su_fragment su)) && negb (opt_is_some (su_query su)).

Lemma pstrip_eval su :
  potentially_strip_trailing_spaces su
  = if strips su then set_path su (SPOpaque (strip_trailing (fun c => c =? 32) (serialize_path su))) else su.
Proof.
  unfold potentially_strip_trailing_spaces, strips, has_opaque_path, serialize_path.
  destruct (su_path su) as [p|l]; [|reflexivity].
  destruct (opt_is_some (su_fragment su)); [reflexivity|]. destruct (opt_is_some (su_query su)); reflexivity.
Qed.

Section SearchHash.
Variable dbg : bool.
Variable shp : bool -> list N -> option spec_host.
Variable shs : spec_host -> list N.

Notation corr := (corr dbg shs).

(* a change behind the path: the relation is re-established from the read-backs *)
Lemma corr_tail u su u' su' : corr u su ->
  wf_b u' = true -> same_front dbg u u' -> same_main u u' ->
  su_scheme su' = su_scheme su -> su_username su' = su_username su -> su_password su' = su_password su ->
  su_host su' = su_host su -> su_port su' = su_port su ->
  path u' = Some (serialize_path su') -> query dbg u' = Some (su_query su') ->
  fragment dbg u' = Some (su_fragment su') ->
  spec_marker su' = spec_marker su -> has_opaque_path su' = has_opaque_path su ->
  starts_with [47] (serialize_path su') = starts_with [47] (serialize_path su) ->
  corr u' su'.
Proof.
  intros [W HT Es Eun Epw Eh Ehh Ea Eat Epo Ept Eq Ef Em Eo Ec] W' (F1 & F2 & F3 & F4 & F5) SM
    S1 S2 S3 S4 S5 P' Q' Fr' M' O' St'.
  pose proof (same_main_auth u u' W W' SM) as Ha'.
  destruct SM as (M1 & M2 & M3 & M4 & M5 & M6 & M7).
  constructor.
  - exact W'.
  - exact (host_text_ok_of_host_str u u' W W' F4 M3 M4 M5 HT).
  - rewrite F1, S1. exact Es.
  - rewrite F2, S2. exact Eun.
  - rewrite F3, S3. exact Epw.
  - rewrite F4, S4. exact Eh.
  - unfold has_host. rewrite M5, S4. exact Ehh.
  - rewrite Ha', S4. exact Ea.
  - rewrite Ha', M2, M3. unfold includes_credentials. rewrite S2, S3. exact Eat.
  - rewrite F5, S5. exact Epo.
  - exact P'.
  - exact Q'.
  - exact Fr'.
  - rewrite Ha', M7, M1, M'. exact Em.
  - rewrite (is_opaque_by_path u' _ W' P'), Ha', M7, M1, St', O', <- Eo.
    symmetry. apply (is_opaque_by_path u _ W Ept).
  - rewrite S2. exact Ec.
Qed.

(* the spaces at the end of an opaque path are stripped on both sides or on neither *)
Lemma corr_strip u su u' su0 (applies : bool) : corr u su ->
  wf_b u' = true -> same_front dbg u u' -> same_main u u' ->
  su_scheme su0 = su_scheme su -> su_username su0 = su_username su -> su_password su0 = su_password su ->
  su_host su0 = su_host su -> su_port su0 = su_port su -> su_path su0 = su_path su ->
  query dbg u' = Some (su_query su0) -> fragment dbg u' = Some (su_fragment su0) ->
  applies = strips su0 ->
  (if applies then exists p, path u = Some p /\ path u' = Some (rstrip (fun c => c =? 32) p) else path u' = path u) ->
  corr u' (potentially_strip_trailing_spaces su0).
Proof.
  intros C W' SF SM S1 S2 S3 S4 S5 S6 Q' Fr' Happ P'.
  assert (serialize_path su0 = serialize_path su) as Esp by (unfold serialize_path; rewrite S6; reflexivity).
  assert (spec_marker su0 = spec_marker su) as Em by (unfold spec_marker; rewrite S4, S6; reflexivity).
  assert (has_opaque_path su0 = has_opaque_path su) as Eop by (unfold has_opaque_path; rewrite S6; reflexivity).
  rewrite pstrip_eval, <- Happ. destruct applies.
  - destruct P' as (p & Pa & Pb). rewrite (co_path _ _ _ _ C) in Pa. injection Pa as Pa.
    symmetry in Happ. unfold strips in Happ. apply andb_true_iff in Happ. destruct Happ as [Happ _].
    apply andb_true_iff in Happ. destruct Happ as [Hop _].
    assert (su_host su = None -> spec_marker su = false) as Hm.
    { intros _. rewrite <- Em. unfold spec_marker, has_opaque_path in *. destruct (su_host su0); [reflexivity|].
      destruct (su_path su0); [reflexivity | discriminate]. }
    apply (corr_tail u su u' _ C W' SF SM); cbn [set_path su_scheme su_username su_password su_host su_port su_query su_fragment];
      try assumption.
    + unfold serialize_path. cbn [set_path su_path]. fold (serialize_path su0).
      rewrite Pb, Esp, <- Pa. f_equal; try apply rstrip_is_strip_trailing.
    + rewrite <- Em. unfold spec_marker. cbn [set_path su_host su_path].
      unfold has_opaque_path in Hop. destruct (su_host su0); [reflexivity|].
      destruct (su_path su0); [reflexivity | discriminate].
    + rewrite <- Eop. unfold has_opaque_path in *. cbn [set_path su_path]. symmetry. exact Hop.
    + unfold serialize_path at 1. cbn [set_path su_path]. rewrite <- rstrip_is_strip_trailing.
      rewrite starts_with_rstrip_47, Esp. reflexivity.
  - apply (corr_tail u su u' su0 C W' SF SM); try assumption.
    + rewrite P', Esp. exact (co_path _ _ _ _ C).
    + rewrite Esp. reflexivity.
Qed.

Theorem hash_step u su v : corr u su -> usv_list v ->
  exists u' su', q_set_hash dbg u v = Some u' /\ spec_step shp QHash su v = Some su' /\ corr u' su'.
Proof.
  intros C Hv. pose proof (co_wf _ _ _ _ C) as W.
  rewrite q_set_hash_arg. unfold spec_step. cbn [setter_of_q]. rewrite spec_set_hash_arg.
  destruct (set_fragment_ok dbg u (setter_arg 35 v) W) as (u' & E & W' & SF & SM & Q' & F' & P').
  exists u'. rewrite E.
  pose proof (setter_arg_usv 35 v Hv) as Hx.
  destruct (setter_arg 35 v) as [x|].
  - rewrite spec_hash_some. eexists. split; [reflexivity|]. split; [reflexivity|].
    apply (corr_tail u su u' _ C W' SF SM); try reflexivity.
    + cbn [set_fragment su_path]. rewrite P'. exact (co_path _ _ _ _ C).
    + rewrite Q'. exact (co_query _ _ _ _ C).
    + rewrite F'. cbn [set_fragment su_fragment]. rewrite (fragment_text_bridge x Hx). reflexivity.
  - eexists. split; [reflexivity|]. split; [reflexivity|].
    apply (corr_strip u su u' (set_fragment su None) (opaque_strip_applies u) C W' SF SM); try reflexivity.
    + rewrite Q'. exact (co_query _ _ _ _ C).
    + exact F'.
    + unfold opaque_strip_applies, strips. cbn [set_fragment su_fragment su_query opt_is_some negb].
      rewrite (co_opaque _ _ _ _ C), (has_some_query u dbg _ W (co_query _ _ _ _ C)).
      unfold has_opaque_path. cbn [set_fragment su_path]. rewrite andb_true_r. reflexivity.
    + exact P'.
Qed.

Lemma query_text_bridge u su x : corr u su -> usv_list x -> query_text u x = upe (qset_of su) (notnl x).
Proof.
  intros C Hx. pose proof (co_wf _ _ _ _ C) as W. unfold query_text.
  rewrite (tnl_text_spec _ (input_new_trim_tnl x) (trim_matches_usv is_tnl x Hx)). rewrite filter_trim_tnl.
  assert (nfirstn (scheme_end u) (ser u) = su_scheme su) as Es.
  { pose proof (co_scheme _ _ _ _ C) as Es. rewrite (scheme_eval u W) in Es. injection Es as Es.
    rewrite <- Es. unfold piece. cbn [pidx]. rewrite N.sub_0_r, nskipn_0. reflexivity. }
  rewrite Es. unfold query_set, qset_of, is_special. rewrite special_schemes_are_the_standards.
  change (notnl x) with (filter not_tnl x).
  destruct (is_special_scheme (su_scheme su)); apply enc_bridge; [exact rel_SPECIAL_QUERY | exact rel_QUERY].
Qed.

Theorem search_step u su v : corr u su -> usv_list v ->
  exists u' su', q_set_search dbg u v = Some u' /\ spec_step shp QSearch su v = Some su' /\ corr u' su'.
Proof.
  intros C Hv. pose proof (co_wf _ _ _ _ C) as W.
  rewrite q_set_search_arg. unfold spec_step. cbn [setter_of_q]. rewrite spec_set_search_arg.
  pose proof (setter_arg_usv 63 v Hv) as Hx.
  destruct (set_query_ok dbg u (setter_arg 63 v) W Hx) as (u' & E & W' & SF & SM & F' & Q' & P').
  exists u'. rewrite E.
  destruct (setter_arg 63 v) as [x|].
  - rewrite spec_search_some. eexists. split; [reflexivity|]. split; [reflexivity|].
    apply (corr_tail u su u' _ C W' SF SM); try reflexivity.
    + cbn [set_query su_path]. rewrite P'. exact (co_path _ _ _ _ C).
    + rewrite Q'. cbn [set_query su_query]. rewrite (query_text_bridge u su x C Hx). reflexivity.
    + rewrite F'. exact (co_frag _ _ _ _ C).
  - eexists. split; [reflexivity|]. split; [reflexivity|].
    apply (corr_strip u su u' (set_query su None) (is_opaque_b u && negb (has_some (fragment_start u))) C W' SF SM);
      try reflexivity.
    + exact Q'.
    + rewrite F'. exact (co_frag _ _ _ _ C).
    + unfold strips. cbn [set_query su_fragment su_query opt_is_some negb].
      rewrite (co_opaque _ _ _ _ C), (has_some_fragment u dbg _ W (co_frag _ _ _ _ C)).
      unfold has_opaque_path. cbn [set_query su_path]. rewrite andb_true_r. reflexivity.
    + exact P'.
Qed.

End SearchHash.
