(* Proofs/C07_Small.v - C07_statement decided by computation on a small scope, inside Coq:
   20 start URLs x the setters href, host, hostname x 71 values, and all histories of two assignments over a
   smaller pool, with the small host functions of C07_Defs on both sides: outside Known_C07 the model of
   url::quirks and the specification model show the same ten API strings.  Every class of Known_C07 is
   inhabited by a witness on which they differ (`refutes`). *)
From Coq Require Import String Ascii.
From RU Require Import Base.Prelude Base.Utf8 Model.AsciiSet Gen.Tables Model.PercentEncoding
  Model.HostT Model.UrlRecord Model.Parser Model.Setters Model.KnownC01 Model.KnownC07 Spec.Whatwg
  Proofs.C07_Defs.

Definition str (s : string) : list N := map N_of_ascii (list_ascii_of_string s).

Lemma usv_str s : usv_list (str s).
Proof.
  induction s as [|a s IH]; constructor; [|exact IH].
  left. pose proof (N_ascii_bounded a). lia.
Qed.

Lemma lists_eqb_spec a : forall b, lists_eqb a b = true <-> a = b.
Proof.
  induction a as [|x a IH]; intros [|y b]; cbn [lists_eqb]; split; intros H; try congruence; try reflexivity.
  - apply andb_true_iff in H. destruct H as [H1 H2]. apply list_eqb_spec in H1. apply IH in H2. congruence.
  - inversion H. subst. apply andb_true_iff. split; [apply list_eqb_spec; reflexivity|apply IH; reflexivity].
Qed.

Lemma toy_api_agree_spec u su :
  toy_api_agree u su = true <-> model_api true u = Some (spec_api_list toy_shs su).
Proof.
  unfold toy_api_agree. destruct (model_api true u) as [a|]; split; intros H; try discriminate.
  - apply lists_eqb_spec in H. congruence.
  - inversion H. apply lists_eqb_spec. reflexivity.
Qed.

(* single assignments *)
Definition small_starts : list (list N) := map str
  ["http://h/"; "http://u:p@h:81/a/b?q#f"; "https://h"; "ws://u@h/"; "ftp://h:21/x"; "file:///c:/d";
   "file://h/x"; "file:///"; "a://u:p@h:9/a//b?q#f"; "a:/p"; "a:/.//p"; "a:/"; "a://"; "a://h"; "a:///x";
   "a://:p@h"; "a:o p "; "a:o#f"; "a:o?q"; "a://h:80/"]%string.

Definition small_values : list (list N) := map str
  [""; "a"; "x:y"; "h:80"; "h:"; ":80"; "::1"; "[::1]"; "[::1]:81"; "//"; "/"; "\"; "//p"; "/.//p"; "/..//p";
   ".."; "%2e"; "c:"; "C|"; "/c:/x"; "?"; "#"; "?q"; "#f"; "??"; "##"; "a b"; " "; "80"; "0"; "65535"; "65536";
   "8a"; "443"; "21"; "http"; "https"; "file"; "ftp"; "ws"; "b:"; "http:"; "file:"; "non-spec"; "%41"; "%";
   "@"; "u@h"; "u:p@h"; "h/p"; "h?q"; "h#f"; "h\p"; "x y "; "'"; "<>"; "http://h/"; "a:b"; "a://h"; "/a/../b";
   "1x"; "+"]%string
  ++ [[9]; [10]; [9; 47]; [10; 56; 48]; [97; 9; 98]; [233]; [0]; [9; 92]; [47; 9; 47]].

(* what the checks of C07_Defs say *)
Lemma toy_compare_0 st s v : toy_compare st s v = 0 ->
  exists u su u' su',
    toy_parse st = Some u /\ toy_sparse st = Some su
    /\ model_api true u = Some (spec_api_list toy_shs su)
    /\ model_set true toy_hp toy_ho toy_hd s u v = Some u'
    /\ spec_step toy_shp s su v = Some su'
    /\ model_api true u' = Some (spec_api_list toy_shs su').
Proof.
  unfold toy_compare. destruct (toy_parse st) as [u|] eqn:Eu; [|discriminate].
  destruct (toy_sparse st) as [su|] eqn:Es; [|discriminate].
  destruct (toy_api_agree u su) eqn:E0; cbn [negb]; [|discriminate].
  destruct (model_set true toy_hp toy_ho toy_hd s u v) as [u'|] eqn:Em; [|discriminate].
  destruct (spec_step toy_shp s su v) as [su'|] eqn:Ess; [|discriminate].
  destruct (toy_api_agree u' su') eqn:E1; [|discriminate]. intros _.
  exists u, su, u', su'. apply toy_api_agree_spec in E0. apply toy_api_agree_spec in E1.
  repeat split; try reflexivity; assumption.
Qed.

Lemma toy_run_check_sound ops : forall u su,
  toy_run_check u su ops = true -> outside_known true toy_hp toy_ho toy_hd u ops ->
  model_api true u = Some (spec_api_list toy_shs su) ->
  exists u' su', model_run true toy_hp toy_ho toy_hd u ops = Some u' /\ spec_run toy_shp su ops = Some su'
                 /\ model_api true u' = Some (spec_api_list toy_shs su').
Proof.
  induction ops as [|[s v] r IH]; intros u su Hc Hout Hapi.
  - exists u, su. cbn [model_run spec_run]. auto.
  - cbn [toy_run_check outside_known model_run spec_run] in *. destruct Hout as [Hk Hr].
    rewrite Hk in Hc. cbn [N.eqb negb] in Hc.
    destruct (model_set true toy_hp toy_ho toy_hd s u v) as [u1|]; [|discriminate].
    destruct (spec_step toy_shp s su v) as [su1|]; [|discriminate].
    apply andb_true_iff in Hc. destruct Hc as [Ha Hc]. apply toy_api_agree_spec in Ha.
    exact (IH u1 su1 Hc Hr Ha).
Qed.

(* all histories of a given length over a pool of assignments
   The start URL is parsed once and every prefix of a history is run once: the check of the histories
   that extend it starts from the records it has reached. *)
Fixpoint runs_ok (n : nat) (pool : list (qsetter * list N)) (u : url) (su : spec_url) : bool :=
  match n with
  | O => true
  | S n' =>
      forallb (fun o =>
        negb (known_c07 u (fst o) (snd o) =? 0)
        || match model_set true toy_hp toy_ho toy_hd (fst o) u (snd o), spec_step toy_shp (fst o) su (snd o) with
           | Some u', Some su' => toy_api_agree u' su' && runs_ok n' pool u' su'
           | _, _ => false
           end) pool
  end.

Definition starts_ok (n : nat) (pool : list (qsetter * list N)) (starts : list (list N)) : bool :=
  forallb (fun st =>
    match toy_parse st with
    | Some u => match toy_sparse st with
                | Some su => toy_api_agree u su && runs_ok n pool u su
                | None => false
                end
    | None => true
    end) starts.

Lemma runs_ok_sound pool : forall ops n u su, runs_ok n pool u su = true ->
  (length ops <= n)%nat -> incl ops pool -> outside_known true toy_hp toy_ho toy_hd u ops ->
  model_api true u = Some (spec_api_list toy_shs su) ->
  exists u' su', model_run true toy_hp toy_ho toy_hd u ops = Some u' /\ spec_run toy_shp su ops = Some su'
                 /\ model_api true u' = Some (spec_api_list toy_shs su').
Proof.
  induction ops as [|[s v] r IH]; intros n u su Hc Hn Hin Hout Hapi.
  - exists u, su. cbn [model_run spec_run]. auto.
  - destruct n as [|n]; [cbn [length] in Hn; lia|]. cbn [runs_ok] in Hc. rewrite forallb_forall in Hc.
    specialize (Hc (s, v) (Hin _ (or_introl eq_refl))).
    cbn [fst snd outside_known model_run spec_run length] in *. destruct Hout as [Hk Hr].
    rewrite Hk in Hc. cbn [N.eqb negb orb] in Hc.
    destruct (model_set true toy_hp toy_ho toy_hd s u v) as [u1|]; [|discriminate].
    destruct (spec_step toy_shp s su v) as [su1|]; [|discriminate].
    apply andb_true_iff in Hc. destruct Hc as [Ha Hc]. apply toy_api_agree_spec in Ha.
    apply (IH n u1 su1 Hc); [lia | intros o Ho; apply Hin; right; exact Ho | exact Hr | exact Ha].
Qed.

Lemma starts_ok_sound n pool starts : starts_ok n pool starts = true ->
  forall st ops u, In st starts -> (length ops <= n)%nat -> incl ops pool ->
  toy_parse st = Some u -> outside_known true toy_hp toy_ho toy_hd u ops ->
  exists su u' su',
    toy_sparse st = Some su /\ model_api true u = Some (spec_api_list toy_shs su)
    /\ model_run true toy_hp toy_ho toy_hd u ops = Some u' /\ spec_run toy_shp su ops = Some su'
    /\ model_api true u' = Some (spec_api_list toy_shs su').
Proof.
  intros H st ops u Hst Hn Hin Hu Hout. unfold starts_ok in H. rewrite forallb_forall in H.
  specialize (H st Hst). rewrite Hu in H. destruct (toy_sparse st) as [su|]; [|discriminate].
  apply andb_true_iff in H. destruct H as [Ha Hc]. apply toy_api_agree_spec in Ha.
  destruct (runs_ok_sound pool ops n u su Hc Hn Hin Hout Ha) as (u' & su' & A & B & C).
  exists su, u', su'. auto.
Qed.

(* histories of one assignment *)
Lemma starts_ok_one pool starts : starts_ok 1 pool starts = true ->
  forall st s v u, In st starts -> In (s, v) pool -> toy_parse st = Some u -> known_c07 u s v = 0 ->
  exists su u' su',
    toy_sparse st = Some su /\ model_api true u = Some (spec_api_list toy_shs su)
    /\ model_set true toy_hp toy_ho toy_hd s u v = Some u' /\ spec_step toy_shp s su v = Some su'
    /\ model_api true u' = Some (spec_api_list toy_shs su').
Proof.
  intros H st s v u Hst Hin Hu Hk.
  assert (incl [(s, v)] pool) as Hi by (intros o [<-|[]]; exact Hin).
  assert (outside_known true toy_hp toy_ho toy_hd u [(s, v)]) as Ho.
  { cbn [outside_known]. split; [exact Hk|]. destruct (model_set true toy_hp toy_ho toy_hd s u v); exact I. }
  destruct (starts_ok_sound 1 pool starts H st [(s, v)] u Hst (le_n 1) Hi Hu Ho) as (su & u' & su' & A & B & C & D & E).
  exists su. cbn [model_run spec_run] in C, D.
  destruct (model_set true toy_hp toy_ho toy_hd s u v) as [u1|]; [|discriminate C].
  destruct (spec_step toy_shp s su v) as [su1|]; [|discriminate D].
  exists u1, su1. inversion C. inversion D. subst. repeat split; assumption.
Qed.

(* href, host and hostname: the small host functions do not meet the host hypotheses of the general one-step
   theorems (a text led by ':' or '@' is a host for them), so these three setters are decided by computation; the
   other seven are instances of the general theorems *)
Lemma small_scope_computed : starts_ok 1 (list_prod [QHref; QHost; QHostname] small_values) small_starts = true.
Proof. vm_compute. reflexivity. Qed.

Lemma in_all_qsetters s : In s all_qsetters.
Proof. destruct s; cbn; auto 12. Qed.

Lemma small_values_usv v : In v small_values -> usv_list v.
Proof.
  intros H. apply in_app_or in H. destruct H as [H|H].
  - apply in_map_iff in H. destruct H as (s & <- & _). apply usv_str.
  - repeat (destruct H as [<-|H]; [repeat constructor|]). destruct H.
Qed.

(* histories of two assignments *)
Definition hist_starts : list (list N) := map str
  ["http://u:p@h:81/a/b?q#f"; "https://h"; "a://h/p?q"; "a:/p"; "a:o p "; "file://h/x"]%string.

Definition hist_ops : list (qsetter * list N) :=
  [(QProtocol, str "https"); (QProtocol, str "ws:x"); (QProtocol, str "b"); (QProtocol, str "file");
   (QUsername, str "u v"); (QUsername, str ""); (QPassword, str "p:w"); (QPassword, str "");
   (QHost, str "x:8"); (QHost, str "y"); (QHost, str ""); (QHost, str "x:443");
   (QHostname, str "z"); (QHostname, str ""); (QHostname, str "z/w");
   (QPort, str "80"); (QPort, str ""); (QPort, str "9x"); (QPort, str "x");
   (QPathname, str "/a/../b"); (QPathname, str ""); (QPathname, str "x y"); (QPathname, str "//d");
   (QSearch, str "?k=v"); (QSearch, str ""); (QSearch, str "a'b");
   (QHash, str "#h"); (QHash, str ""); (QHash, str " s ");
   (QHref, str "http://n/"); (QHref, str "a:o  "); (QHref, str "nonsense")]%string.

Lemma small_histories_computed : starts_ok 2 hist_ops hist_starts = true.
Proof. vm_compute. reflexivity. Qed.

(* every class of Known_C07 holds a divergence *)
Definition refutes (k : N) (st : string) (s : qsetter) (v : list N) : Prop :=
  toy_known (str st) s v = k /\ toy_compare (str st) s v = 1.

(* what `refutes` says, unfolded: the start URL parses on both sides to records with the same ten API
   strings, the assignment is in class k, neither side panics / runs out of fuel, and the ten API
   strings differ afterwards *)
Lemma refutes_meaning k st s v : refutes k st s v ->
  exists u su u' su',
    toy_parse (str st) = Some u /\ toy_sparse (str st) = Some su
    /\ model_api true u = Some (spec_api_list toy_shs su)
    /\ known_c07 u s v = k
    /\ model_set true toy_hp toy_ho toy_hd s u v = Some u'
    /\ spec_step toy_shp s su v = Some su'
    /\ model_api true u' <> Some (spec_api_list toy_shs su').
Proof.
  intros [Hk Hc]. unfold toy_known in Hk. unfold toy_compare in Hc.
  destruct (toy_parse (str st)) as [u|] eqn:Eu; [|discriminate].
  destruct (toy_sparse (str st)) as [su|] eqn:Es; [|discriminate].
  destruct (toy_api_agree u su) eqn:E0; cbn [negb] in Hc; [|discriminate].
  destruct (model_set true toy_hp toy_ho toy_hd s u v) as [u'|] eqn:Em; [|discriminate].
  destruct (spec_step toy_shp s su v) as [su'|] eqn:Ess; [|discriminate].
  destruct (toy_api_agree u' su') eqn:E1; [discriminate|].
  exists u, su, u', su'. apply toy_api_agree_spec in E0.
  repeat split; auto. intros Hn. apply toy_api_agree_spec in Hn. congruence.
Qed.

(* the scheme changes among the six special schemes and a non-special one, on URLs with and without
   credentials / port / empty host: outside class 6 the model carries out exactly the changes the
   Standard carries out *)
Definition proto_starts : list (list N) := map str
  ["http://h/"; "https://h:8/"; "ws://u@h/"; "wss://:p@h/"; "ftp://h:80/"; "file://h/"; "file:///p";
   "a://h/"; "a://u@h:1/"; "a:/p"; "a://"; "a:o"; "http://h:443/"; "https://h:21/"; "ftp://h:21/"]%string.
Definition proto_values : list (list N) := map str
  ["http"; "https"; "ws"; "wss"; "ftp"; "file"; "b"; "HTTP"; "http:"; "ws://x"; "fi le"; "1a"; ""; "+a"]%string.
