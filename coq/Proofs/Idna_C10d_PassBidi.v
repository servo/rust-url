(* Proofs/Idna_C10d_PassBidi.v - the premise PassBidi of C10_case_statement2 (the bidi rule accepts every pass-through
   label) follows from three facts about the bidi classes of the characters a pass-through label can contain - exactly
   what the `adapter` stream of the harness samples on the real idna_adapter as ok_pass_bidi (for every ASCII character):
     a-z : can start an LTR label (FIRST_BC_MASK, is_ltr), can end one (LAST_LTR_MASK), can be inside (MIDDLE_LTR_MASK), not NSM;
     0-9 : can end and be inside an LTR label, not NSM;      '-' : can be inside an LTR label, not NSM. *)
From RU Require Import Base.Prelude Base.Utf8 Base.U32_c13 Gen.Tables Model.Punycode Model.Uts46
  Proofs.Idna_Sim Proofs.Idna_Api Proofs.Idna_Known Proofs.Idna_Hyp Proofs.Idna_C10_Deny Proofs.Idna_C10_Inner
  Proofs.Idna_C10b_AsciiInner Proofs.Idna_C10b_Stmt Proofs.Idna_C10c_Example.

Definition PassBits (A : adapter) : Prop :=
  (forall c, 97 <= c -> c <= 122 ->
     bc_first (bidi_class A c) = true /\ bc_ltr (bidi_class A c) = true /\ bc_last_ltr (bidi_class A c) = true /\
     bc_mid_ltr (bidi_class A c) = true /\ bc_nsm (bidi_class A c) = false) /\
  (forall c, 48 <= c -> c <= 57 ->
     bc_last_ltr (bidi_class A c) = true /\ bc_mid_ltr (bidi_class A c) = true /\ bc_nsm (bidi_class A c) = false) /\
  (bc_mid_ltr (bidi_class A 45) = true /\ bc_nsm (bidi_class A 45) = false).

Definition pch (c : N) : Prop := (97 <= c /\ c <= 122) \/ (48 <= c /\ c <= 57) \/ c = 45.

Lemma last_opt_rev x (r : list N) : last_opt (rev (x :: r)) = Some x.
Proof.
  cbn [rev]. generalize (rev r). intros l. induction l as [|y l IH]; [reflexivity|].
  cbn [app]. destruct (l ++ [x]) as [|n l0] eqn:E; [destruct l; discriminate|]. exact IH.
Qed.

Theorem pass_bidi_of_bits A : PassBits A -> PassBidi A.
Proof.
  intros (HA & HD & HH1 & HH2) label he Hb Hp. unfold is_passthrough_ascii_label in Hp.
  destruct ((4 <=? len label) && (nth 2 label 0 =? HYPHEN) && (nth 3 label 0 =? HYPHEN)); [discriminate|].
  destruct label as [|first tail]; [reflexivity|].
  inversion Hb as [|? ? Hf Ht]; subst. unfold is_byte in Hf.
  destruct (in_inclusive_range8 first 97 122) eqn:E1; [|discriminate]. cbn [negb] in Hp.
  destruct (forallb (fun b => in_inclusive_range8 b 97 122 || in_inclusive_range8 b 48 57 || (b =? HYPHEN)) tail) eqn:E2; [|discriminate].
  cbn [negb] in Hp. apply negb_true_iff in Hp.
  destruct (range8_spec first 97 122 Hf ltac:(lia) ltac:(lia) E1) as [F1 F2].
  destruct (HA first F1 F2) as (B1 & B2 & B3 & B4 & B5).
  assert (Hpc : Forall pch tail).
  { apply Forall_forall. intros x Hx. rewrite forallb_forall in E2. specialize (E2 x Hx).
    unfold bytes in Ht. rewrite Forall_forall in Ht. specialize (Ht x Hx). unfold is_byte in Ht.
    apply orb_true_iff in E2. destruct E2 as [E2|E2]; [apply orb_true_iff in E2; destruct E2 as [E2|E2]|].
    - left. exact (range8_spec x 97 122 Ht ltac:(lia) ltac:(lia) E2).
    - right; left. exact (range8_spec x 48 57 Ht ltac:(lia) ltac:(lia) E2).
    - right; right. unfold HYPHEN in E2. lia. }
  assert (Hmid : forall x, pch x -> bc_mid_ltr (bidi_class A x) = true /\ bc_nsm (bidi_class A x) = false).
  { intros x [[X1 X2]|[[X1 X2]| ->]].
    - destruct (HA x X1 X2) as (_ & _ & _ & M & Nn). split; assumption.
    - destruct (HD x X1 X2) as (_ & M & Nn). split; assumption.
    - split; assumption. }
  unfold bidi_label. rewrite B1. cbn [negb]. rewrite B2. unfold trim_nsm.
  destruct (rev tail) as [|lst rprior] eqn:Er.
  { cbn [trim_nsm_rev]. reflexivity. }
  assert (Etail : tail = rev rprior ++ [lst]) by (rewrite <- (rev_involutive tail), Er; reflexivity).
  assert (Hl : pch lst) by (rewrite Forall_forall in Hpc; apply Hpc; rewrite Etail; apply in_or_app; right; left; reflexivity).
  cbn [trim_nsm_rev]. rewrite (proj2 (Hmid lst Hl)).
  assert (Hlast : last_opt (first :: tail) = Some lst).
  { rewrite Etail. change (rev rprior ++ [lst]) with (rev (lst :: rprior)).
    pose proof (last_opt_rev lst rprior) as E. destruct (rev (lst :: rprior)) eqn:E3; [discriminate|]. exact E. }
  rewrite Hlast in Hp.
  assert (Hll : bc_last_ltr (bidi_class A lst) = true).
  { destruct Hl as [[X1 X2]|[[X1 X2]| ->]]; [exact (proj1 (proj2 (proj2 (HA lst X1 X2))))|exact (proj1 (HD lst X1 X2))|].
    unfold HYPHEN in Hp. discriminate. }
  rewrite Hll. cbn [negb sbind]. rewrite scan_mark_ff.
  replace (existsb (fun c => negb (bc_mid_ltr (bidi_class A c))) (rev rprior)) with false.
  - cbn [sbind]. rewrite Etail. reflexivity.
  - symmetry. apply not_true_iff_false. intros Hx. apply existsb_exists in Hx. destruct Hx as (x & Hin & Hx).
    assert (Hpx : pch x) by (rewrite Forall_forall in Hpc; apply Hpc; rewrite Etail; apply in_or_app; left; exact Hin).
    rewrite (proj1 (Hmid x Hpx)) in Hx. discriminate.
Qed.

(* lowsan has these classes: its bidi_class is toy_bc of Proofs/Idna_Known.v *)
Lemma toy_bc_bits : PassBits lowsan.
Proof.
  unfold PassBits. cbn [lowsan bidi_class]. split; [|split].
  - intros c H1 H2. unfold toy_bc. replace (c =? 1488) with false by lia.
    replace ((48 <=? c) && (c <=? 57)) with false by lia. replace ((97 <=? c) && (c <=? 122)) with true by lia.
    repeat split; reflexivity.
  - intros c H1 H2. unfold toy_bc. replace (c =? 1488) with false by lia.
    replace ((48 <=? c) && (c <=? 57)) with true by lia. repeat split; reflexivity.
  - split; reflexivity.
Qed.
Lemma lowsan_pass_bidi : PassBidi lowsan.
Proof. exact (pass_bidi_of_bits lowsan toy_bc_bits). Qed.

(* "A.B<u-umlaut>cher" and "a.b<u-umlaut>CHER": in the second the label "a" is passed through, in the first it is processed *)
Definition W_case3 : list N := [97; 46; 98; 195; 188; 67; 72; 69; 82].
Lemma w_case3 :
  ascii_case_variant W_idem3 W_case3 /\
  to_ascii lowsan true W_idem3 DENY_URL HCheck DVerify = Ok (false, W_idem3_A) /\
  to_ascii lowsan true W_case3 DENY_URL HCheck DVerify = Ok (false, W_idem3_A).
Proof. vm_compute. repeat split; reflexivity. Qed.
