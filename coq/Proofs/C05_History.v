(* Proofs/C05_History.v - the inductive predicate "reachable Url" (parse / join as base cases, every
   mutator of Model/Setters.v with arbitrary arguments as step cases) and the alphabet invariant. *)
From RU Require Import Base.Prelude Base.Utf8 Model.AsciiSet Gen.Tables Model.PercentEncoding
  Model.HostT Model.UrlRecord Model.Parser Model.Setters Proofs.ListN Proofs.C05_Enc Proofs.C05_Parser
  Proofs.C05_Setters.

Inductive op :=
| OSetFragment (f : option (list N))
| OSetQuery (q : option (list N))
| OSetPath (p : list N)
| OSetPort (p : option N)
| OSetHost (h : option (list N))
| OSetIpHost (h : host)
| OSetPassword (p : option (list N))
| OSetUsername (s : list N)
| OSetScheme (s : list N)
| OPathSegments (ops : list psm_op)
| OQProtocol (v : list N)
| OQUsername (v : list N)
| OQPassword (v : list N)
| OQHost (v : list N)
| OQHostname (v : list N)
| OQPort (v : list N)
| OQPathname (v : list N)
| OQSearch (v : list N)
| OQHash (v : list N).

(* Url::set_ip_host takes an IpAddr *)
Definition op_valid (o : op) : Prop := match o with OSetIpHost h => is_ip h | _ => True end.

Section History.
Variable dbg : bool.
Variable host_parse host_parse_opaque : list N -> result host.
Variable host_display : host -> list N.

Definition drop_status (r : option (url * status)) : option url :=
  match r with Some (u, _) => Some u | None => None end.

(* None = the call panics *)
Definition apply_op (u : url) (o : op) : option url :=
  match o with
  | OSetFragment f => set_fragment dbg u f
  | OSetQuery q => set_query dbg u q
  | OSetPath p => set_path dbg u p
  | OSetPort p => drop_status (set_port dbg u p)
  | OSetHost h => drop_status (set_host dbg host_parse host_parse_opaque host_display u h)
  | OSetIpHost h => drop_status (set_ip_host dbg host_display u h)
  | OSetPassword p => drop_status (set_password dbg u p)
  | OSetUsername s => drop_status (set_username dbg u s)
  | OSetScheme s => drop_status (set_scheme dbg u s)
  | OPathSegments ops => drop_status (path_segments_session dbg u ops)
  | OQProtocol v => drop_status (q_set_protocol dbg u v)
  | OQUsername v => drop_status (q_set_username dbg u v)
  | OQPassword v => drop_status (q_set_password dbg u v)
  | OQHost v => drop_status (q_set_host dbg host_parse host_parse_opaque host_display u v)
  | OQHostname v => drop_status (q_set_hostname dbg host_parse host_parse_opaque host_display u v)
  | OQPort v => drop_status (q_set_port dbg u v)
  | OQPathname v => q_set_pathname dbg u v
  | OQSearch v => q_set_search dbg u v
  | OQHash v => q_set_hash dbg u v
  end.

Inductive Reachable : url -> Prop :=
| R_parse ovr input u :
    parse_url dbg host_parse host_parse_opaque host_display ovr None input = POk u -> Reachable u
| R_join ovr b input u :
    Reachable b -> parse_url dbg host_parse host_parse_opaque host_display ovr (Some b) input = POk u -> Reachable u
| R_step u o u' :
    Reachable u -> op_valid o -> apply_op u o = Some u' -> Reachable u'.

Lemma drop_status_some r u : drop_status r = Some u -> exists st, r = Some (u, st).
Proof. destruct r as [[u0 st]|]; cbn; intros H; [inversion H; subst; eauto | discriminate]. Qed.

Section Inv.
Variable P : N -> Prop.
Hypothesis P_ok : forall b, ok_byte b -> P b.
Hypothesis P_32 : P 32.
Hypothesis HOK : HostOK host_parse host_parse_opaque host_display.

(* the one argument that is not text is the address given to set_ip_host *)
Lemma apply_op_okl_ip u o u' : match o with OSetIpHost h => okl P (host_display h) | _ => True end ->
  apply_op u o = Some u' -> okl P (ser u) -> okl P (ser u').
Proof.
  intros Hv H Hs. destruct o; cbn [apply_op] in H;
    try (apply drop_status_some in H; destruct H as [st H]).
  - eapply set_fragment_okl; eassumption.
  - eapply set_query_okl; eassumption.
  - eapply set_path_okl; eassumption.
  - eapply set_port_okl; eassumption.
  - eapply set_host_okl; eassumption.
  - eapply set_ip_host_okl; eassumption.
  - eapply set_password_okl; eassumption.
  - eapply set_username_okl; eassumption.
  - eapply set_scheme_okl; eassumption.
  - eapply path_segments_session_okl; eassumption.
  - eapply q_set_protocol_okl; eassumption.
  - eapply q_set_username_okl; eassumption.
  - eapply q_set_password_okl; eassumption.
  - eapply q_set_host_okl; eassumption.
  - eapply q_set_hostname_okl; eassumption.
  - eapply q_set_port_okl; eassumption.
  - eapply q_set_pathname_okl; eassumption.
  - eapply q_set_search_okl; eassumption.
  - eapply q_set_hash_okl; eassumption.
Qed.

Hypothesis HIP : IpOK host_display.

Lemma apply_op_okl u o u' : op_valid o -> apply_op u o = Some u' -> okl P (ser u) -> okl P (ser u').
Proof.
  intros Hv. apply apply_op_okl_ip. destruct o; try exact I. apply (okl_ok _ P_ok), HIP. exact Hv.
Qed.

Theorem reachable_okl u : Reachable u -> okl P (ser u).
Proof.
  induction 1 as [ovr input u Hp | ovr b input u Hb IH Hp | u o u' Hu IH Hv Ho].
  - eapply parse_url_okl; [exact P_ok | exact HOK | intros _; exact P_32 | exact Hp | exact I].
  - eapply parse_url_okl; [exact P_ok | exact HOK | intros _; exact P_32 | exact Hp | exact IH].
  - eapply apply_op_okl; eassumption.
Qed.
End Inv.

End History.
