(* Proofs/C01_EqAuthModel.v - model side of the C01 equivalence for "scheme://authority...": what the
   look-ahead functions of parser.rs (parse_userinfo = scan for the last '@' + second pass,
   parse_host = host_scan, parse_port, parse_path_start) compute on the raw remaining input, in terms of
   the cuts the Standard's states make on the cleaned text (Proofs/C01_EqAuthSpec.v). *)
From RU Require Import Base.Prelude Base.Utf8 Gen.Tables Model.PercentEncoding Model.HostT Model.UrlRecord
  Model.Parser Spec.Whatwg Proofs.ListN Proofs.C02_Parts Proofs.C02_Opaque Proofs.C02_Path
  Proofs.C02_PathL1 Proofs.C08_Input Proofs.C01_EqRun Proofs.C01_EqEnc Proofs.C01_EqApi Proofs.C01_EqOpaque
  Proofs.C01_EqPath Proofs.C01_EqAuthSpec.

(* outcomes up to ParseError::Overflow *)
(* m is Ok v, or it is Err(Overflow) and P holds (P = "the final serialization is longer than u32") *)
Definition oob {A} (P : Prop) (m : pres A) (v : A) : Prop := (m = PErr Overflow /\ P) \/ m = POk v.
Definition mfail {A} (m : pres A) : Prop := exists e, m = PErr e.

Lemma oob_ret {A} P (v : A) : oob P (POk v) v.
Proof. right. reflexivity. Qed.

Lemma oob_bind {A C} P (m : pres A) v (f : A -> pres C) w : oob P m v -> oob P (f v) w -> oob P (pbind m f) w.
Proof. intros [[-> H]| ->] K; [left; split; [reflexivity | exact H] | exact K]. Qed.

Lemma oob_u32 (P : Prop) n : (U32_MAX_P < n -> P) -> oob P (to_u32 n) n.
Proof.
  intros H. unfold to_u32. destruct (n <=? U32_MAX_P) eqn:E; [right; reflexivity | left; split; [reflexivity | apply H; lia]].
Qed.

Lemma oob_weaken {A} (P Q : Prop) (m : pres A) v : (P -> Q) -> oob P m v -> oob Q m v.
Proof. intros H [[E K]|E]; [left; split; [exact E | exact (H K)] | right; exact E]. Qed.

Lemma mfail_bind {A C} (m : pres A) (f : A -> pres C) : mfail m -> mfail (pbind m f).
Proof. intros [e ->]. exists e. reflexivity. Qed.

Lemma mfail_bind2 {A C} P (m : pres A) v (f : A -> pres C) : oob P m v -> mfail (f v) -> mfail (pbind m f).
Proof. intros [[-> _]| ->] K; [exists Overflow; reflexivity | exact K]. Qed.

(* the userinfo encoder *)
Definition encU (w : list N) : list N := encode T_USERINFO (utf8_encode w).

Lemma encU_cons c w : encU (c :: w) = encU [c] ++ encU w.
Proof. unfold encU. change (c :: w) with ([c] ++ w). apply enc_utf8_app. Qed.

Lemma encU_upe w : encU w = upe in_userinfo_set w.
Proof. unfold encU, upe. apply enc_bridge. exact rel_USERINFO. Qed.

Lemma upe_nil_iff inset w : is_nil (upe inset w) = is_nil w.
Proof.
  destruct w as [|c r]; [reflexivity|]. rewrite upe_cons. cbn [is_nil]. unfold utf8_percent_encode_cp.
  destruct (inset c); [|reflexivity]. unfold utf8_encode. cbn [flat_map]. rewrite app_nil_r.
  destruct (utf8_encode1 c) as [|b bs] eqn:E; [|reflexivity].
  exfalso. unfold utf8_encode1 in E. repeat (destruct (_ <? _) in E); discriminate E.
Qed.

Lemma encU_nil_iff w : is_nil (encU w) = is_nil w.
Proof. rewrite encU_upe. apply upe_nil_iff. Qed.

Lemma push_userinfo ser c : is_usv c -> push_encoded T_USERINFO ser [c] = ser ++ encU [c].
Proof. intros H. apply push_encoded_eq. constructor; [exact H | constructor]. Qed.

Fixpoint has_colon (w : list N) : bool := match w with [] => false | c :: r => (c =? 58) || has_colon r end.

Lemma no_colon_user w : has_colon w = false -> cr_user w = w /\ cr_pass w = [].
Proof.
  induction w as [|c r IH]; [split; reflexivity|]. cbn [has_colon cr_user cr_pass]. intros H.
  apply orb_false_iff in H. destruct H as [H1 H2]. rewrite H1. destruct (IH H2) as [-> ->]. split; reflexivity.
Qed.

(* first pass: the last '@' *)
(* `sp`: the scheme is special; `stop`: the end of the authority on the Standard's side (`is_ae`, resp. `is_aes`) *)
Section FirstPass.
Variable sp : bool.
Variable stop : N -> bool.
Hypothesis Hstop : forall c, stop c = is_ae c || (sp && (c =? 92)).

Lemma stop_not_at c : (c =? 64) = true -> stop c = false.
Proof. intros E. apply N.eqb_eq in E. subst c. rewrite Hstop. apply andb_false_r. Qed.

Lemma scan_spec l : forall count last, usv_list l ->
  match last_at (cut_part stop (ntnl l)) with
  | Some (w, h) => exists rem, scan_last_at sp l count last = Some (count + nlen w, rem)
                               /\ ntnl rem = h ++ cut_rest stop (ntnl l) /\ usv_list rem
  | None => scan_last_at sp l count last = last
  end.
Proof.
  induction l as [|c r IH]; intros count last Hu; [reflexivity|].
  apply usv_cons in Hu. destruct Hu as [Huc Hur]. cbn [scan_last_at].
  destruct (is_tnl c) eqn:Et.
  - rewrite ntnl_cons_tnl by exact Et. apply IH. exact Hur.
  - rewrite ntnl_cons by exact Et. cbn [cut_part cut_rest].
    replace ((c =? 47) || (c =? 63) || (c =? 35) || ((c =? 92) && sp)) with (stop c)
      by (rewrite Hstop, (andb_comm sp); reflexivity).
    destruct (c =? 64) eqn:E64.
    + rewrite (stop_not_at c E64).
      cbn [last_at]. rewrite E64. specialize (IH (count + 1) (Some (count, r)) Hur).
      destruct (last_at (cut_part stop (ntnl r))) as [[w h]|].
      * destruct IH as (rem & E1 & E2 & E3). exists rem. split; [|split; assumption].
        rewrite E1. rewrite nlen_cons. f_equal. f_equal. lia.
      * exists r. split; [|split; [|exact Hur]].
        -- rewrite IH. rewrite nlen_nil, N.add_0_r. reflexivity.
        -- symmetry. apply cut_part_rest.
    + destruct (stop c) eqn:Eae; [reflexivity|]. cbn [last_at]. rewrite E64.
      specialize (IH (count + 1) last Hur).
      destruct (last_at (cut_part stop (ntnl r))) as [[w h]|]; [|exact IH].
      destruct IH as (rem & E1 & E2 & E3). exists rem. split; [|split; assumption].
      rewrite E1. rewrite nlen_cons. f_equal. f_equal. lia.
Qed.

End FirstPass.

(* second pass *)
Lemma nlen_zero_nil (w : list N) : nlen w = 0 -> w = [].
Proof. destruct w; [reflexivity|]. unfold nlen. cbn [length]. lia. Qed.

Lemma userinfo_loop_zero l ser uend hpw hun : userinfo_loop l 0 ser uend hpw hun = POk (ser, uend, hpw, hun).
Proof. destruct l; reflexivity. Qed.

(* after the ':' *)
Lemma ui_phase2 l : forall w x n ser ue hun, usv_list l -> ntnl l = w ++ x -> n = nlen w ->
  userinfo_loop l n ser (Some ue) true hun = POk (ser ++ encU w, Some ue, true, hun).
Proof.
  induction l as [|c r IH]; intros w x n ser ue hun Hu Hl Hn.
  - destruct w; [|discriminate Hl]. subst n. cbn. rewrite app_nil_r. reflexivity.
  - apply usv_cons in Hu. destruct Hu as [Huc Hur]. cbn [userinfo_loop].
    destruct (n =? 0) eqn:En0.
    + apply N.eqb_eq in En0. rewrite En0 in Hn. symmetry in Hn. apply nlen_zero_nil in Hn. subst w. cbn. rewrite app_nil_r. reflexivity.
    + destruct (is_tnl c) eqn:Et.
      * rewrite ntnl_cons_tnl in Hl by exact Et. exact (IH w x n ser ue hun Hur Hl Hn).
      * rewrite ntnl_cons in Hl by exact Et. destruct w as [|c' w']; [subst n; discriminate En0|].
        cbn [app] in Hl. inversion Hl; subst c'. rewrite andb_false_r.
        rewrite (push_userinfo ser c Huc).
        rewrite (IH w' x (n - 1) (ser ++ encU [c]) ue hun Hur H1) by (subst n; rewrite nlen_cons; lia).
        rewrite (encU_cons c w'), <- app_assoc. reflexivity.
Qed.

(* from the start *)
Lemma ui_phase1 (P : Prop) l : forall w x n ser hun, usv_list l -> ntnl l = w ++ x -> n = nlen w ->
  (U32_MAX_P < nlen (ser ++ encU (cr_user w)) -> P) ->
  oob P (userinfo_loop l n ser None false hun)
      (if has_colon w
       then (ser ++ encU (cr_user w) ++ (if is_nil (cr_pass w) then [] else 58 :: encU (cr_pass w)),
             Some (nlen (ser ++ encU (cr_user w))), negb (is_nil (cr_pass w)), hun || negb (is_nil (cr_user w)))
       else (ser ++ encU w, None, false, hun || negb (is_nil w))).
Proof.
  assert (forall ser hun, (ser ++ encU [], @None N, false, hun || negb (is_nil (@nil N))) = (ser, None, false, hun)) as Enil.
  { intros ser hun. cbn. rewrite app_nil_r, orb_false_r. reflexivity. }
  induction l as [|c r IH]; intros w x n ser hun Hu Hl Hn HP.
  - destruct w; [|discriminate Hl]. subst n. cbn [has_colon]. rewrite Enil. right. reflexivity.
  - apply usv_cons in Hu. destruct Hu as [Huc Hur]. cbn [userinfo_loop].
    destruct (n =? 0) eqn:En0.
    + apply N.eqb_eq in En0. rewrite En0 in Hn. symmetry in Hn. apply nlen_zero_nil in Hn. subst w.
      cbn [has_colon]. rewrite Enil. right. reflexivity.
    + destruct (is_tnl c) eqn:Et.
      * rewrite ntnl_cons_tnl in Hl by exact Et. exact (IH w x n ser hun Hur Hl Hn HP).
      * rewrite ntnl_cons in Hl by exact Et. destruct w as [|c' w']; [subst n; discriminate En0|].
        cbn [app] in Hl. inversion Hl; subst c'.
        assert (n - 1 = nlen w') as Hn' by (subst n; rewrite nlen_cons; lia).
        cbn [has_colon cr_user cr_pass]. cbn [cr_user] in HP. destruct (c =? 58) eqn:E58.
        -- (* the first ':' *)
           cbn [andb orb is_nil negb]. change (encU []) with (@nil N) in *. rewrite app_nil_r in HP.
           eapply oob_bind; [apply oob_u32; exact HP|]. cbn [app]. rewrite app_nil_r. rewrite orb_false_r.
           destruct w' as [|d w''].
           ++ rewrite Hn'. rewrite nlen_nil. change (0 <? 0) with false. cbn iota. rewrite userinfo_loop_zero.
              cbn [is_nil negb]. rewrite app_nil_r. right. reflexivity.
           ++ replace (0 <? n - 1) with true by (rewrite Hn', nlen_cons; lia).
              rewrite (ui_phase2 r (d :: w'') x (n - 1) (ser ++ [58]) (nlen ser) hun Hur H1 Hn').
              cbn [is_nil negb]. rewrite <- app_assoc. right. reflexivity.
        -- cbn [andb orb]. rewrite (push_userinfo ser c Huc).
           assert (nlen ((ser ++ encU [c]) ++ encU (cr_user w')) = nlen (ser ++ encU (c :: cr_user w'))) as El.
           { rewrite (encU_cons c (cr_user w')), <- app_assoc. reflexivity. }
           pose proof (IH w' x (n - 1) (ser ++ encU [c]) true Hur H1 Hn') as IH'.
           rewrite El in IH'. specialize (IH' HP). cbn [is_nil negb]. rewrite orb_true_r. cbn [orb] in IH'.
           rewrite (encU_cons c w'), (encU_cons c (cr_user w')). rewrite <- !app_assoc in *.
           rewrite <- (encU_cons c (cr_user w')) in *.
           destruct (has_colon w'); exact IH'.
Qed.

(* the credentials as the serializer of the Standard writes them *)
Definition cred_text (un pw : list N) : list N :=
  if is_nil un && is_nil pw then [] else un ++ (if is_nil pw then [] else 58 :: pw) ++ [64].

Lemma cred_text_len un pw : nlen un <= nlen (cred_text un pw).
Proof.
  unfold cred_text. destruct un as [|a u]; [rewrite nlen_nil; lia|]. cbn [is_nil andb].
  rewrite nlen_app. lia.
Qed.

Lemma inp_next_drop l : inp_next (drop_while is_tnl l) = inp_next l.
Proof.
  unfold inp_next. induction l as [|c r IH]; [reflexivity|]. cbn [drop_while].
  destruct (is_tnl c) eqn:E; [exact IH|]. cbn [drop_while]. rewrite E. reflexivity.
Qed.

Section SecondPass.
Variable sp : bool.
Variable stop : N -> bool.
Hypothesis Hstop : forall c, stop c = is_ae c || (sp && (c =? 92)).
Variable st : scheme_type.
Hypothesis Hst : st_is_special st = sp.

Theorem parse_userinfo_cut ser l : usv_list l ->
  match fst (cut_at stop (ntnl l)) with
  | None => forall P : Prop, (U32_MAX_P < nlen ser -> P) -> oob P (parse_userinfo st ser l) (ser, nlen ser, l)
  | Some w =>
      if is_nil w && cut_starts stop (snd (cut_at stop (ntnl l))) then parse_userinfo st ser l = PErr EmptyHost
      else exists rem, ntnl rem = snd (cut_at stop (ntnl l)) /\ usv_list rem /\
           forall P : Prop,
           ((U32_MAX_P < nlen (ser ++ cred_text (encU (cr_user w)) (encU (cr_pass w))) -> P) ->
            oob P (parse_userinfo st ser l)
                (ser ++ cred_text (encU (cr_user w)) (encU (cr_pass w)), nlen ser + nlen (encU (cr_user w)), rem))
  end.
Proof.
  intros Hu. unfold cut_at, parse_userinfo. rewrite Hst.
  pose proof (scan_spec sp stop Hstop l 0 None Hu) as HS.
  destruct (last_at (cut_part stop (ntnl l))) as [[w h]|] eqn:Ela; cbn [fst snd].
  2:{ rewrite HS. intros P HP. eapply oob_bind; [apply oob_u32; exact HP | apply oob_ret]. }
  destruct HS as (rem & Escan & Hrem & Hurem). rewrite Escan, N.add_0_l.
  destruct w as [|c0 w'].
  - (* "@host": no credentials, the '@' is skipped *)
    cbn [is_nil andb]. rewrite nlen_nil. rewrite <- Hrem.
    destruct (inp_next rem) as [[c r']|] eqn:En.
    + destruct (inp_next_ntnl rem c r' En) as [E1 _]. rewrite E1. cbn [cut_starts].
      fold (is_ae c). rewrite <- Hstop. destruct (stop c); [reflexivity|].
      exists rem. split; [exact E1 | split; [exact Hurem|]].
      change (encU (cr_user [])) with (@nil N). change (encU (cr_pass [])) with (@nil N).
      cbn [cred_text is_nil andb]. rewrite app_nil_r, nlen_nil, N.add_0_r.
      intros P HP. eapply oob_bind; [apply oob_u32; exact HP | apply oob_ret].
    + rewrite (inp_next_none_ntnl rem En). reflexivity.
  - cbn [is_nil andb]. exists rem. split; [exact Hrem | split; [exact Hurem|]]. intros P HP.
    set (w := c0 :: w') in *.
    assert (exists p, nlen w = N.pos p) as [p Ep] by (unfold w, nlen; cbn [length N.of_nat]; eexists; reflexivity).
    rewrite Ep.
    assert (ntnl l = w ++ 64 :: h ++ cut_rest stop (ntnl l)) as Hl.
    { rewrite <- (cut_part_rest stop (ntnl l)) at 1. rewrite (last_at_split _ _ _ Ela). rewrite <- app_assoc. reflexivity. }
    set (U := cr_user w) in *. set (PW := cr_pass w) in *.
    assert (nlen (ser ++ encU U) <= nlen (ser ++ cred_text (encU U) (encU PW))) as Hle.
    { rewrite !nlen_app. pose proof (cred_text_len (encU U) (encU PW)). lia. }
    pose proof (ui_phase1 P l w _ (N.pos p) ser false Hu Hl (eq_sym Ep)) as H1.
    assert (U32_MAX_P < nlen (ser ++ encU (cr_user w)) -> P) as HP1 by (fold U; intros K; apply HP; lia).
    specialize (H1 HP1). fold U PW in H1.
    eapply oob_bind; [exact H1|]. cbn [orb].
    destruct (has_colon w) eqn:Ecol.
    + cbn [pbind].
      assert ((if negb (is_nil U) || negb (is_nil PW)
               then (ser ++ encU U ++ (if is_nil PW then [] else 58 :: encU PW)) ++ [64]
               else ser ++ encU U ++ (if is_nil PW then [] else 58 :: encU PW))
              = ser ++ cred_text (encU U) (encU PW)) as ->.
      { unfold cred_text. rewrite !encU_nil_iff.
        destruct (is_nil U) eqn:EU; destruct (is_nil PW) eqn:EP; cbn [negb orb andb].
        - destruct U; [|discriminate EU]. change (encU []) with (@nil N). cbn [app]. reflexivity.
        - rewrite <- !app_assoc. reflexivity.
        - rewrite <- !app_assoc. reflexivity.
        - rewrite <- !app_assoc. reflexivity. }
      rewrite (nlen_app ser). right. reflexivity.
    + destruct (no_colon_user w Ecol) as [EU EP]. unfold U, PW in *. rewrite EU, EP in *.
      change (encU []) with (@nil N) in *. cbn [is_nil negb orb].
      assert (cred_text (encU w) [] = encU w ++ [64]) as Ect.
      { unfold cred_text. rewrite encU_nil_iff. cbn [is_nil andb app]. unfold w at 1. cbn [is_nil]. reflexivity. }
      rewrite Ect in *.
      eapply oob_bind; [apply oob_u32; intros K; apply HP; rewrite !nlen_app in *; lia|].
      right. rewrite <- app_assoc, nlen_app. reflexivity.
Qed.

End SecondPass.

Lemma is_ae_stop c : is_ae c = is_ae c || (false && (c =? 92)).
Proof. symmetry. apply orb_false_r. Qed.

Theorem parse_userinfo_spec ser l : usv_list l ->
  match fst (after_at (ntnl l)) with
  | None => forall P : Prop, (U32_MAX_P < nlen ser -> P) -> oob P (parse_userinfo STNotSpecial ser l) (ser, nlen ser, l)
  | Some w =>
      if is_nil w && starts_ae (snd (after_at (ntnl l))) then parse_userinfo STNotSpecial ser l = PErr EmptyHost
      else exists rem, ntnl rem = snd (after_at (ntnl l)) /\ usv_list rem /\
           forall P : Prop,
           ((U32_MAX_P < nlen (ser ++ cred_text (encU (cr_user w)) (encU (cr_pass w))) -> P) ->
            oob P (parse_userinfo STNotSpecial ser l)
                (ser ++ cred_text (encU (cr_user w)) (encU (cr_pass w)), nlen ser + nlen (encU (cr_user w)), rem))
  end.
Proof. exact (parse_userinfo_cut false is_ae is_ae_stop STNotSpecial eq_refl ser l). Qed.

(* host *)
Section HostScan.
Variable sp : bool.
Variable stop : N -> bool.
Hypothesis Hstop : forall c, stop c = is_ae c || (sp && (c =? 92)).

Lemma host_scan_cut l : forall br acc, usv_list l ->
  exists rem, host_scan sp br acc l = (rev acc ++ host_part stop br (ntnl l), rem)
              /\ ntnl rem = host_rest stop br (ntnl l) /\ usv_list rem.
Proof.
  induction l as [|c r IH]; intros br acc Hu.
  - exists []. cbn. rewrite app_nil_r. repeat split. constructor.
  - pose proof Hu as Hu0. apply usv_cons in Hu. destruct Hu as [Huc Hur]. cbn [host_scan].
    destruct (is_tnl c) eqn:Et.
    + rewrite ntnl_cons_tnl by exact Et. apply IH. exact Hur.
    + rewrite ntnl_cons by exact Et. cbn [host_part host_rest].
      replace (((c =? 58) && negb br) || ((c =? 92) && sp) || (c =? 47) || (c =? 63) || (c =? 35)) with (host_stop stop br c).
      2:{ unfold host_stop. rewrite Hstop. unfold is_ae.
          destruct ((c =? 58) && negb br), sp, (c =? 92), (c =? 47), (c =? 63), (c =? 35); reflexivity. }
      destruct (host_stop stop br c) eqn:Es.
      * exists (c :: r). rewrite app_nil_r. split; [reflexivity|]. split; [apply ntnl_cons; exact Et | exact Hu0].
      * assert ((if c =? 91 then host_scan sp true (c :: acc) r
                 else if c =? 93 then host_scan sp false (c :: acc) r else host_scan sp br (c :: acc) r)
                = host_scan sp (br_next br c) (c :: acc) r) as ->.
        { unfold br_next. destruct (c =? 91); [reflexivity|]. destruct (c =? 93); reflexivity. }
        destruct (IH (br_next br c) (c :: acc) Hur) as (rem & E1 & E2 & E3). exists rem.
        rewrite E1. cbn [rev]. rewrite <- app_assoc. repeat split; assumption.
Qed.

End HostScan.

Lemma host_scan_spec l : forall br acc, usv_list l ->
  exists rem, host_scan false br acc l = (rev acc ++ hs_host br (ntnl l), rem)
              /\ ntnl rem = hs_rest br (ntnl l) /\ usv_list rem.
Proof. exact (host_scan_cut false is_ae is_ae_stop l). Qed.

(* port *)
Definition valfrom (p : N) (d : list N) : N := fold_left (fun a x => a * 10 + (x - 48)) d p.

Lemma valfrom_ge d : forall p, p <= valfrom p d.
Proof.
  induction d as [|c r IH]; intros p; [cbn; lia|]. cbn [valfrom fold_left].
  pose proof (IH (p * 10 + (c - 48))) as H. unfold valfrom in H. lia.
Qed.

Lemma port_loop_spec l : forall p any, usv_list l -> p <= 65535 ->
  let d := digits_of (ntnl l) in
  let X := after_digits (ntnl l) in
  if 65535 <? valfrom p d then parse_port_loop CUrlParser l p any = PErr InvalidPort
  else match X with
       | [] => parse_port_loop CUrlParser l p any = POk (valfrom p d, any || negb (is_nil d), [])
       | c :: _ =>
           if is_path_end c
           then exists rem, parse_port_loop CUrlParser l p any = POk (valfrom p d, any || negb (is_nil d), rem)
                            /\ ntnl rem = X /\ usv_list rem
           else parse_port_loop CUrlParser l p any = PErr InvalidPort
       end.
Proof.
  induction l as [|c r IH]; intros p any Hu Hp.
  - cbn. replace (65535 <? p) with false by lia. rewrite orb_false_r. reflexivity.
  - pose proof Hu as Hu0. apply usv_cons in Hu. destruct Hu as [Huc Hur]. cbn [parse_port_loop].
    destruct (is_tnl c) eqn:Et.
    + rewrite ntnl_cons_tnl by exact Et. apply IH; assumption.
    + rewrite ntnl_cons by exact Et. cbn [digits_of after_digits]. destruct (is_digit c) eqn:Ed.
      * cbv zeta. cbn [valfrom fold_left]. fold (valfrom (p * 10 + (c - 48)) (digits_of (ntnl r))).
        destruct (65535 <? p * 10 + (c - 48)) eqn:Eov.
        -- pose proof (valfrom_ge (digits_of (ntnl r)) (p * 10 + (c - 48))).
           replace (65535 <? valfrom (p * 10 + (c - 48)) (digits_of (ntnl r))) with true by lia. reflexivity.
        -- pose proof (IH (p * 10 + (c - 48)) true Hur) as IH'. cbv zeta in IH'.
           assert (p * 10 + (c - 48) <= 65535) as Hp' by lia. specialize (IH' Hp').
           cbn [is_nil negb]. rewrite orb_true_r. cbn [orb] in IH'. exact IH'.
      * cbv zeta. cbn [valfrom fold_left is_nil negb]. replace (65535 <? p) with false by lia. rewrite orb_false_r.
        cbn [ctx_eqb andb]. destruct (is_path_end c); cbn [negb]; [|reflexivity].
        exists (c :: r). split; [reflexivity|]. split; [apply ntnl_cons; exact Et | exact Hu0].
Qed.

Lemma valfrom_decimal d : valfrom 0 d = decimal_value d.
Proof. reflexivity. Qed.

(* the host functions of the two sides on one string *)
(* the model's Host::parse_opaque + Display and the Standard's host parser + serializer agree on s:
   both fail, or both succeed with the same text; the text does not start with ':', and the model's
   host is the empty domain exactly for the empty string, and its text is empty exactly then *)
Definition host_agree (hpo : list N -> result host) (hd : host -> list N)
           (shp : bool -> list N -> option spec_host) (shs : spec_host -> list N) (s : list N) : Prop :=
  match hpo s, host_parsing shp true s with
  | Ok h, Some sh => hd h = shs sh /\ starts_with_cp 58 (hd h) = false
                     /\ (h = HDomain [] <-> s = []) /\ (hd h = [] <-> s = [])
  | Err _, None => True
  | _, _ => False
  end.

Lemma set_port_none u : su_port u = None -> set_port u None = u.
Proof. destruct u as [x1 x2 x3 x4 x5 x6 x7 x8]. cbn. intros ->. reflexivity. Qed.

Lemma path_end_ae c : is_path_end c = is_ae c || (c =? 92).
Proof. unfold is_path_end, is_ae. destruct (c =? 47), (c =? 92), (c =? 63), (c =? 35); reflexivity. Qed.

Lemma inp_starts_with_char_ntnl c l : inp_starts_with_char c l = starts_with_cp c (ntnl l).
Proof.
  unfold inp_starts_with_char. destruct (inp_next l) as [[d r]|] eqn:En.
  - destruct (inp_next_ntnl l d r En) as [-> _]. reflexivity.
  - rewrite (inp_next_none_ntnl l En). reflexivity.
Qed.

Section Stages.
Variable dbg : bool.
Variable hp hpo : list N -> result host.
Variable hd : host -> list N.
Variable ovr : option (list N -> list N).
Variable shp : bool -> list N -> option spec_host.
Variable shs : spec_host -> list N.

(* parse_host_and_port *)
Theorem hp_spec sch ser1 rem u : usv_list rem -> scheme_type_of sch = STNotSpecial ->
  (exists tl, ser1 = sch ++ tl) -> su_port u = None ->
  let HR := ntnl rem in
  let Hh := hs_host false HR in
  let X := match port_split (hs_rest false HR) with Some PR => after_digits PR | None => hs_rest false HR end in
  host_agree hpo hd shp shs Hh ->
  match port_split (hs_rest false HR) with
  | Some PR => ((decimal_value (digits_of PR) <=? 65535) && starts_with_cp 92 (after_digits PR)) = false
  | None => True
  end ->
  match sauth_host shp u HR with
  | None => mfail (parse_host_and_port hp hpo hd CUrlParser STNotSpecial (nlen sch) ser1 rem)
  | Some su =>
      exists host sh port rem',
        hpo Hh = Ok host /\ host_parsing shp true Hh = Some sh
        /\ (Hh = [] -> port = None) /\ (forall p, port = Some p -> p <= 65535)
        /\ ntnl rem' = X /\ usv_list rem' /\ starts_ae X = true
        /\ su = sauth_tail (set_port (set_host u (Some sh)) port) X
        /\ (forall P : Prop, (U32_MAX_P < nlen (ser1 ++ hd host) -> P) ->
            oob P (parse_host_and_port hp hpo hd CUrlParser STNotSpecial (nlen sch) ser1 rem)
                ((ser1 ++ hd host) ++ port_suffix port, nlen (ser1 ++ hd host), hi_of_host host, port, rem'))
  end.
Proof.
  intros Hu Hns Hsch Hpo HR Hh X HA Hbs.
  unfold parse_host_and_port, parse_host. cbn [st_is_file st_is_special scheme_type_eqb andb negb].
  destruct (host_scan_spec rem false [] Hu) as (rem2 & Escan & Hrem2 & Hu2). cbn [rev app] in Escan.
  rewrite Escan. fold HR in Hrem2 |- *. fold Hh.
  unfold sauth_host. fold Hh.
  unfold host_agree in HA.
  pose proof (host_rest_head is_ae HR false) as Hhead. change (host_rest is_ae) with hs_rest in Hhead.
  destruct (hpo Hh) as [host|e] eqn:Ehpo; destruct (host_parsing shp true Hh) as [sh|] eqn:Eshp; try contradiction.
  2:{ (* both host parsers fail *)
      destruct (port_split (hs_rest false HR)); [destruct (is_nil Hh)|]; cbn [of_result pbind]; exists e; reflexivity. }
  destruct HA as (Htxt & Hcol & Hemp & Hemp2).
  cbn [of_result pbind].
  assert (default_port (nfirstn (nlen sch) (ser1 ++ hd host)) = None) as Edp.
  { destruct Hsch as [tl ->]. rewrite <- app_assoc, nfirstn_app_len.
    unfold default_port. unfold scheme_type_of in Hns.
    destruct (list_eqb sch s_http); [discriminate|]. destruct (list_eqb sch s_https); [discriminate|].
    destruct (list_eqb sch s_ws); [discriminate|]. destruct (list_eqb sch s_wss); [discriminate|].
    destruct (list_eqb sch s_ftp); [discriminate|]. reflexivity. }
  destruct (port_split (hs_rest false HR)) as [PR|] eqn:Eps.
  - (* ':' ends the host *)
    destruct (hs_rest false HR) as [|c0 X0] eqn:EX0; [discriminate Eps|]. cbn [port_split] in Eps.
    destruct (c0 =? 58) eqn:E58; [|discriminate Eps]. inversion Eps; subst X0. apply N.eqb_eq in E58. subst c0.
    assert (inp_starts_with_char 58 rem2 = true) as Esw by (rewrite inp_starts_with_char_ntnl, Hrem2; reflexivity).
    destruct (inp_next_some rem2 58 PR Hrem2) as (rem3 & En3 & Hrem3 & _).
    assert (usv_list rem3) as Hu3 by (exact (inp_next_usv rem2 58 rem3 Hu2 En3)).
    assert (inp_split_prefix_char 58 rem2 = Some rem3) as Esp by (unfold inp_split_prefix_char; rewrite En3; reflexivity).
    destruct (is_nil Hh) eqn:Enil.
    + (* empty host in front of a port: EmptyHost *)
      destruct Hh as [|x y] eqn:EHh; [|discriminate Enil].
      assert (host = HDomain []) as -> by (apply Hemp; reflexivity).
      eapply mfail_bind2 with (P := True); [apply oob_u32; intros _; exact I|].
      rewrite Esw. cbn [pbind]. exists EmptyHost. reflexivity.
    + assert (Hh <> []) as Hne by (intros K; rewrite K in Enil; discriminate).
      assert (match host with HDomain [] => if inp_starts_with_char 58 rem2 then PErr EmptyHost
                                            else if false then PErr EmptyHost else POk tt
                            | _ => POk tt end = POk tt) as Echk.
      { destruct host as [[|a b]| |]; try reflexivity. exfalso. apply Hne. apply Hemp. reflexivity. }
      cbn [st_is_special]. rewrite Esp.
      pose proof (port_loop_spec rem3 0 false Hu3 ltac:(lia)) as HPL. cbv zeta in HPL. rewrite Hrem3 in HPL.
      rewrite valfrom_decimal in HPL. cbn [orb] in HPL.
      unfold sauth_port. cbn [X]. unfold parse_port.
      destruct (starts_ae (after_digits PR)) eqn:Esae; cbn [negb].
      * (* the port ends at the end of the authority *)
        destruct (65535 <? decimal_value (digits_of PR)) eqn:Eov.
        -- (* beyond 65535 *)
           assert (mfail (' (port, rem4) <~ (' (p, any, rem0) <~ parse_port_loop CUrlParser rem3 0 false;;
                           (if negb any && ctx_eqb CUrlParser CSetter && negb (inp_is_empty rem0) then PErr InvalidPort
                            else POk (if negb any || opt_eqb (Some p) (default_port (nfirstn (nlen sch) (ser1 ++ hd host))) then None else Some p, rem0)));;
                           POk (match port with Some p => (ser1 ++ hd host) ++ [58] ++ decimal p | None => ser1 ++ hd host end,
                                nlen (ser1 ++ hd host), hi_of_host host, port, rem4))) as Hf.
           { rewrite HPL. exists InvalidPort. reflexivity. }
           assert (is_nil (digits_of PR) = false) as End.
           { destruct (digits_of PR); [discriminate Eov | reflexivity]. }
           rewrite End.
           eapply mfail_bind2 with (P := True); [apply oob_u32; intros _; exact I|].
           rewrite Echk. cbn [pbind]. exact Hf.
        -- assert (exists rem4, parse_port_loop CUrlParser rem3 0 false
                     = POk (decimal_value (digits_of PR), negb (is_nil (digits_of PR)), rem4)
                     /\ ntnl rem4 = after_digits PR /\ usv_list rem4) as (rem4 & EPL & Hrem4 & Hu4).
           { destruct (after_digits PR) as [|c X1] eqn:EX.
             - exists []. split; [exact HPL | split; [reflexivity | constructor]].
             - cbn [starts_ae] in Esae. rewrite path_end_ae, Esae in HPL. cbn [orb] in HPL. exact HPL. }
           destruct (is_nil (digits_of PR)) eqn:End; try rewrite End in EPL; cbn [negb] in EPL.
           ++ exists host, sh, None, rem4.
              split; [reflexivity|]. split; [reflexivity|]. split; [reflexivity|].
              split; [intros p Hp; discriminate Hp|].
              split; [exact Hrem4|]. split; [exact Hu4|]. split; [exact Esae|].
              split; [rewrite set_port_none; [reflexivity | exact Hpo]|].
              intros P HP. eapply oob_bind; [apply oob_u32; exact HP|]. rewrite Echk. cbn [pbind]. rewrite EPL. cbn [pbind].
              cbn [ctx_eqb andb negb orb pbind port_suffix]. rewrite app_nil_r. right. reflexivity.
           ++ exists host, sh, (Some (decimal_value (digits_of PR))), rem4.
              split; [reflexivity|]. split; [reflexivity|]. split; [intros K; contradiction|].
              split; [intros p Hp; inversion Hp; subst; lia|].
              split; [exact Hrem4|]. split; [exact Hu4|]. split; [exact Esae|].
              split; [reflexivity|].
              intros P HP. eapply oob_bind; [apply oob_u32; exact HP|]. rewrite Echk. cbn [pbind]. rewrite EPL. cbn [pbind].
              cbn [ctx_eqb andb negb orb]. rewrite Edp. cbn [opt_eqb pbind port_suffix].
              right. reflexivity.
      * (* something else follows the digits: failure, unless it is '\' after a valid port *)
        assert (mfail (' (port, rem4) <~ (' (p, any, rem0) <~ parse_port_loop CUrlParser rem3 0 false;;
                        (if negb any && ctx_eqb CUrlParser CSetter && negb (inp_is_empty rem0) then PErr InvalidPort
                         else POk (if negb any || opt_eqb (Some p) (default_port (nfirstn (nlen sch) (ser1 ++ hd host))) then None else Some p, rem0)));;
                        POk (match port with Some p => (ser1 ++ hd host) ++ [58] ++ decimal p | None => ser1 ++ hd host end,
                             nlen (ser1 ++ hd host), hi_of_host host, port, rem4))) as Hf.
        { destruct (65535 <? decimal_value (digits_of PR)) eqn:Eov; [rewrite HPL; exists InvalidPort; reflexivity|].
          destruct (after_digits PR) as [|c X1] eqn:EX; [discriminate Esae|]. cbn [starts_ae] in Esae.
          rewrite path_end_ae, Esae in HPL. cbn [orb] in HPL.
          replace (decimal_value (digits_of PR) <=? 65535) with true in Hbs by lia.
          cbn [andb starts_with_cp] in Hbs. rewrite Hbs in HPL.
          rewrite HPL. exists InvalidPort. reflexivity. }
        eapply mfail_bind2 with (P := True); [apply oob_u32; intros _; exact I|].
        rewrite Echk. cbn [pbind]. exact Hf.
  - (* the host ends at the end of the authority *)
    assert (starts_ae (hs_rest false HR) = true) as Esae.
    { destruct (hs_rest false HR) as [|c0 X0]; [reflexivity|]. cbn [port_split] in Eps. cbn [starts_ae].
      destruct (c0 =? 58) eqn:E58; [discriminate Eps|]. destruct Hhead as [K|K]; [exact K | rewrite K in E58; discriminate]. }
    assert (starts_with_cp 58 (hs_rest false HR) = false) as E58.
    { destruct (hs_rest false HR) as [|c0 X0]; [reflexivity|]. cbn [port_split] in Eps. cbn [starts_with_cp].
      destruct (c0 =? 58); [discriminate Eps | reflexivity]. }
    assert (inp_starts_with_char 58 rem2 = false) as Esw by (rewrite inp_starts_with_char_ntnl, Hrem2; exact E58).
    assert (inp_split_prefix_char 58 rem2 = None) as Esp.
    { unfold inp_split_prefix_char. destruct (inp_next rem2) as [[d r]|] eqn:En; [|reflexivity].
      destruct (inp_next_ntnl rem2 d r En) as [E1 _]. rewrite Hrem2 in E1. rewrite E1 in E58. cbn [starts_with_cp] in E58.
      rewrite E58. reflexivity. }
    exists host, sh, None, rem2.
    split; [reflexivity|]. split; [reflexivity|]. split; [reflexivity|]. split; [intros p Hp; discriminate Hp|].
    split; [exact Hrem2|]. split; [exact Hu2|]. split; [exact Esae|].
    split; [rewrite set_port_none; [reflexivity | exact Hpo]|].
    intros P HP. eapply oob_bind; [apply oob_u32; exact HP|].
    rewrite Esw. cbn [st_is_special]. rewrite Esp.
    assert (match host with HDomain [] => POk tt | _ => POk tt end = @POk unit tt) as -> by (destruct host as [[|a b]| |]; reflexivity).
    cbn [pbind port_suffix]. rewrite app_nil_r. right. reflexivity.
Qed.

End Stages.

(* path start *)
Section PathStart.
Variable dbg : bool.

Lemma slice_empty_at s : slice_o s (nlen s) (nlen s) = Some [].
Proof.
  rewrite slice_o_some by lia. rewrite N.sub_diag. reflexivity.
Qed.

(* nothing but tab / newline left *)
Lemma loop_all_tnl l : forall ser hh, ntnl l = [] ->
  parse_path_loop dbg CUrlParser STNotSpecial (nlen ser) l ser (nlen ser) [] hh = POk (ser, hh, []).
Proof.
  induction l as [|c r IH]; intros ser hh Hl.
  - cbn [parse_path_loop push_pending]. rewrite (finish_plain dbg (nlen ser) ser (nlen ser) false hh []);
      [reflexivity | apply slice_empty_at | reflexivity | reflexivity].
  - destruct (is_tnl c) eqn:Et; [|rewrite ntnl_cons in Hl by exact Et; discriminate Hl].
    rewrite ntnl_cons_tnl in Hl by exact Et. rewrite loop_cons_tnl by exact Et. cbn [push_pending]. apply IH. exact Hl.
Qed.

(* the '/' that starts the path *)
Lemma loop_first_slash l : forall ser hh t, usv_list l -> ntnl l = 47 :: t ->
  exists r, parse_path_loop dbg CUrlParser STNotSpecial (nlen ser) l ser (nlen ser) [] hh
            = parse_path_loop dbg CUrlParser STNotSpecial (nlen ser) r (ser ++ [47]) (nlen (ser ++ [47])) [] hh
            /\ ntnl r = t /\ usv_list r.
Proof.
  induction l as [|c r IH]; intros ser hh t Hu Hl; [discriminate Hl|].
  apply usv_cons in Hu. destruct Hu as [Huc Hur].
  destruct (is_tnl c) eqn:Et.
  - rewrite ntnl_cons_tnl in Hl by exact Et. rewrite loop_cons_tnl by exact Et. cbn [push_pending].
    exact (IH ser hh t Hur Hl).
  - rewrite ntnl_cons in Hl by exact Et. inversion Hl; subst c. exists r.
    split; [|split; [reflexivity | exact Hur]].
    rewrite loop_cons_slash. cbn [push_pending].
    rewrite (finish_plain dbg (nlen ser) (ser ++ [47]) (nlen ser) true hh []); [reflexivity | | reflexivity | reflexivity].
    rewrite nlen_app. replace (nlen ser + nlen [47] - 1) with (nlen ser) by (unfold nlen; cbn [length]; lia).
    rewrite slice_o_some by (rewrite ?nlen_app; lia). rewrite N.sub_diag. reflexivity.
Qed.

Lemma set_path_same u P : su_path u = SPList P -> set_path u (SPList P) = u.
Proof. destruct u as [x1 x2 x3 x4 x5 x6 x7 x8]. cbn. intros ->. reflexivity. Qed.

Lemma pqf_q_drop st l : pqf_q st (drop_while is_tnl l) = pqf_q st l.
Proof. unfold pqf_q. rewrite inp_next_drop. reflexivity. Qed.
Lemma pqf_f_drop l : pqf_f (drop_while is_tnl l) = pqf_f l.
Proof. unfold pqf_f. rewrite inp_next_drop. reflexivity. Qed.

Lemma ntnl_drop l : ntnl (drop_while is_tnl l) = ntnl l.
Proof.
  induction l as [|c r IH]; [reflexivity|]. cbn [drop_while]. destruct (is_tnl c) eqn:E; [|reflexivity].
  rewrite ntnl_cons_tnl by exact E. exact IH.
Qed.

Lemma drop_head l : match drop_while is_tnl l with [] => True | c :: _ => is_tnl c = false end.
Proof. induction l as [|c r IH]; [exact I|]. cbn [drop_while]. destruct (is_tnl c) eqn:E; [exact IH | exact E]. Qed.

Lemma usv_drop l : usv_list l -> usv_list (drop_while is_tnl l).
Proof.
  induction l as [|c r IH]; intros H; [exact H|]. cbn [drop_while]. destruct (is_tnl c); [|exact H].
  apply usv_cons in H. apply IH. tauto.
Qed.

Theorem path_start_spec rem ser hh : usv_list rem -> starts_ae (ntnl rem) = true ->
  (match ntnl rem with c :: r => if c =? 47 then spath_ok r [] [] = true else True | [] => True end) ->
  exists segs rest,
    parse_path_start dbg CUrlParser STNotSpecial hh ser rem = POk (ser ++ flat_map (fun s => 47 :: s) segs, hh, rest)
    /\ usv_list rest
    /\ forallb (fun c => negb ((c =? 63) || (c =? 35))) (flat_map (fun s => 47 :: s) segs) = true
    /\ forallb no_slash segs = true
    /\ (forall u, su_path u = SPList [] -> is_special u = false -> su_query u = None -> su_fragment u = None ->
          sauth_tail u (ntnl rem) = set_fragment (set_query (set_path u (SPList segs)) (pqf_q STNotSpecial rest)) (pqf_f rest))
    /\ match ntnl rest with [] => True | c :: _ => is_qh c = true end.
Proof.
  intros Hu Hae Hok. unfold parse_path_start, inp_split_first. cbn [st_is_special].
  destruct (ntnl rem) as [|c t] eqn:Ent.
  - (* nothing left *)
    rewrite (inp_next_none rem Ent). unfold parse_path. rewrite (loop_all_tnl rem ser hh Ent).
    exists [], []. cbn [flat_map]. rewrite app_nil_r. split; [reflexivity|]. split; [constructor|].
    split; [reflexivity|]. split; [reflexivity|]. split; [|exact I].
    intros u HP Hns Hq Hf. cbn [sauth_tail]. rewrite (set_path_same u [] HP).
    destruct u as [x1 x2 x3 x4 x5 x6 x7 x8]. cbn in *. subst. reflexivity.
  - destruct (inp_next_some rem c t Ent) as (r' & En & Hr' & Et). rewrite En.
    pose proof (inp_next_usv rem c r' Hu En) as Hur'.
    cbn [starts_ae] in Hae. destruct (c =? 47) eqn:E47.
    + (* a path *)
      apply N.eqb_eq in E47. subst c. cbn [N.eqb Pos.eqb orb]. unfold parse_path.
      destruct (loop_first_slash rem ser hh t Hu Ent) as (r2 & Eloop & Hr2 & Hur2). rewrite Eloop.
      assert (pend_ok []) as Hp0 by (split; [constructor | reflexivity]).
      assert (Bs ser [] = ser ++ [47]) as EB by (unfold Bs; cbn; rewrite !app_nil_r; reflexivity).
      rewrite <- Hr2 in Hok.
      destruct (loop_exact ser dbg r2 [] [] [] hh Hur2 Hp0 eq_refl eq_refl Hok) as (segs & last & Hloop & Hfst & Hsnd).
      cbn [app rev utf8_encode flat_map encode] in Hfst, Hsnd.
      pose proof Hloop as Hloop2. rewrite app_nil_r, EB in Hloop2. rewrite Hloop2.
      destruct (loop_inv ser dbg r2 [] [] [] hh _ _ _ Hur2 Hp0 eq_refl eq_refl eq_refl Hloop)
        as (segs1 & last1 & Es1 & Gs & Gl & _).
      assert (segs1 = segs /\ last1 = last) as [-> ->].
      { unfold Bs in Es1. rewrite <- !app_assoc in Es1. apply app_inv_head in Es1. apply app_inv_head in Es1.
        pose proof (spath_no_slash (ntnl r2) [] [] eq_refl eq_refl) as Hns. rewrite Hfst in Hns.
        rewrite forallb_app in Hns. apply andb_true_iff in Hns. destruct Hns as [Hns1 Hns2].
        cbn [forallb] in Hns2. rewrite andb_true_r in Hns2.
        assert (forallb no_slash segs1 = true /\ no_slash last1 = true) as [Hn1 Hn2].
        { split.
          - apply (forallb_impl good_seg); [|exact Gs]. intros s Hs.
            apply (forallb_impl seg_char); [|apply good_seg_chars; exact Hs].
            intros x Hx. unfold seg_char in Hx. apply andb_true_iff in Hx. destruct Hx as [Hx _].
            apply andb_true_iff in Hx. tauto.
          - apply (forallb_impl seg_char); [|apply good_seg_chars; exact Gl].
            intros x Hx. unfold seg_char in Hx. apply andb_true_iff in Hx. destruct Hx as [Hx _].
            apply andb_true_iff in Hx. tauto. }
        clear - Es1 Hns1 Hns2 Hn1 Hn2. revert segs1 Es1 Hn1.
        induction segs as [|s segs IH]; intros [|s1 segs1] E Hn1.
        - cbn in E. split; [reflexivity | symmetry; exact E].
        - exfalso. cbn [segs_text map concat app] in E. subst last. unfold no_slash in Hns2.
          rewrite <- app_assoc in Hns2. rewrite !forallb_app in Hns2. cbn [forallb N.eqb Pos.eqb negb andb] in Hns2.
          rewrite andb_false_r in Hns2. discriminate.
        - exfalso. cbn [segs_text map concat app] in E. subst last1. unfold no_slash in Hn2.
          rewrite <- app_assoc in Hn2. rewrite !forallb_app in Hn2. cbn [forallb N.eqb Pos.eqb negb andb] in Hn2.
          rewrite andb_false_r in Hn2. discriminate.
        - cbn [forallb] in Hns1, Hn1. apply andb_true_iff in Hns1, Hn1. destruct Hns1 as [A1 A2]. destruct Hn1 as [B1 B2].
          unfold segs_text in E. cbn [map concat] in E. fold (segs_text segs) in E. fold (segs_text segs1) in E.
          rewrite <- !app_assoc in E.
          assert (s = s1 /\ segs_text segs ++ last = segs_text segs1 ++ last1) as [-> E'].
          { clear - E A1 B1. revert s1 E B1. induction s as [|a s IHs]; intros [|b s1] E B1.
            - cbn in E. inversion E. split; reflexivity.
            - exfalso. cbn in E. inversion E; subst. unfold no_slash in B1. cbn in B1. discriminate.
            - exfalso. cbn in E. inversion E; subst. unfold no_slash in A1. cbn in A1. discriminate.
            - cbn in E. inversion E; subst. unfold no_slash in A1, B1. cbn [forallb] in A1, B1.
              apply andb_true_iff in A1, B1. destruct (IHs (proj2 A1) s1 H1 (proj2 B1)) as [-> K]. split; [reflexivity | exact K]. }
          destruct (IH A2 segs1 E' B2) as [-> ->]. split; reflexivity. }
      exists (segs ++ [last]), (cbb_rest r2).
      split.
      { f_equal. f_equal. f_equal. rewrite path_text_flat. unfold Bs, path_text. rewrite <- !app_assoc. reflexivity. }
      split; [apply usv_cbb_rest; exact Hur2|].
      split; [rewrite path_text_flat; apply path_text_no_qh; assumption|].
      split; [rewrite <- Hfst; apply spath_no_slash; reflexivity|].
      split.
      2:{ pose proof (cbb_rest_head r2) as Hh. destruct (cbb_rest r2) as [|d dr]; [exact I|]. destruct Hh as [Hh1 Hh2].
          rewrite ntnl_cons by exact Hh2. exact Hh1. }
      intros u HP Hnsu Hq Hf. cbn [sauth_tail]. replace (47 =? 47) with true by reflexivity.
      rewrite <- Hr2. rewrite Hfst, Hsnd.
      apply (tail_url_st STNotSpecial); [exact Hnsu | exact Hq | exact Hf | apply cbb_rest_head].
    + (* '?' or '#': no path *)
      assert ((c =? 63) || (c =? 35) = true) as Eqh by (unfold is_ae in Hae; rewrite E47 in Hae; exact Hae).
      rewrite Eqh. exists [], rem. cbn [flat_map]. rewrite app_nil_r.
      split; [reflexivity|].
      split; [exact Hu|]. split; [reflexivity|]. split; [reflexivity|]. split; [|rewrite Ent; exact Eqh].
      intros u HP Hnsu Hq Hf. cbn [sauth_tail]. rewrite E47. rewrite (set_path_same u [] HP).
      rewrite <- (pqf_q_drop STNotSpecial rem), <- (pqf_f_drop rem).
      rewrite <- Ent, <- (ntnl_drop rem).
      apply (tail_url_st STNotSpecial); [exact Hnsu | exact Hq | exact Hf|].
      pose proof (drop_head rem) as Hd. pose proof (ntnl_drop rem) as Hn. rewrite Ent in Hn.
      destruct (drop_while is_tnl rem) as [|d dr]; [exact I|]. rewrite ntnl_cons in Hn by exact Hd.
      inversion Hn; subst d. split; [exact Eqh | exact Hd].
Qed.

End PathStart.
