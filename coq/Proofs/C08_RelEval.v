(* Proofs/C08_RelEval.v - make_relative on a target with the same path: the reference is exactly
   ["?" query]["#" fragment] of the target (so its resolution is given by C08_empty / C08_frag / C08_query). *)
From RU Require Import Base.Prelude Model.HostT Model.UrlRecord Model.Parser Model.MakeRelative
  Proofs.C02_Parts.

Lemma list_eqb_refl l : list_eqb l l = true.
Proof. apply list_eqb_spec. reflexivity. Qed.

Lemma skip_common_same l : skip_common l l = ([], []).
Proof. induction l as [|x r IH]; [reflexivity|]. cbn [skip_common]. rewrite list_eqb_refl. exact IH. Qed.

Lemma mr_path_part_same d f : mr_path_part d f d f = [].
Proof.
  unfold mr_path_part. rewrite skip_common_same. cbn [emit_dotdot emit_rest]. unfold add_filename.
  rewrite list_eqb_refl. reflexivity.
Qed.

Lemma mr_host_eqb_refl h : mr_host_eqb h h = true.
Proof. destruct h; cbn [mr_host_eqb]; try apply list_eqb_refl. apply N.eqb_refl. Qed.

Lemma opt_eqb_refl o : opt_eqb o o = true.
Proof. destruct o; cbn [opt_eqb]; [apply N.eqb_refl | reflexivity]. Qed.

