(* Proofs/C02_Segments.v - L2 for Url::path_segments_mut sessions on the canonical hierarchical records (classes
   (ii) without the "/." marker, (iii), (iv)): open, any sequence of clear / pop / pop_if_empty / push / extend with
   arbitrary &str arguments, drop.  Invariant of the serialization during the session:
       FRONT  or  FRONT '/' seg '/' ... '/' last      with canonical segments (no '\' for a special scheme),
   kept by the truncations of clear / pop / pop_if_empty and by push / extend: the path state in the
   PathSegmentSetter context writes the PATH_SEGMENT encoding of the argument without tab / LF / CR (no '/', no '\'
   for special schemes, '%' encoded), then finish_segment treats a resulting "." or ".." as a dot segment - which
   is how push(".<TAB>.") popped a segment before extend() made its skip test on the tab / LF / CR-free text (finding
   F-C06-7, fixed); the proof does not use the skip test: whatever reaches parse_path leaves a canonical result. *)
From RU Require Import Base.Prelude Base.Utf8 Base.Utf8Facts Model.AsciiSet Gen.Tables
  Model.PercentEncoding Model.HostT Model.UrlRecord Model.Parser Model.Setters Model.WF
  Proofs.ListN Proofs.C06_List Proofs.C14_Set Proofs.C14_Enc Proofs.C02_Enc Proofs.C02_Parts
  Proofs.C02_Opaque Proofs.C02_Path Proofs.C02_PathL1 Proofs.C02_Reach Proofs.C02_AuthParts
  Proofs.C02_Auth Proofs.C02_AuthWf Proofs.C02_PathSp Proofs.C02_AuthSp Proofs.C02_AuthMain Proofs.C02_SetQF
  Proofs.C02_Canon Proofs.C02_SetPort Proofs.C02_SetHostFrame Proofs.C02_SetScheme Proofs.C02_PathSetter Proofs.C02_SetPath
  Proofs.C02_JoinTail Proofs.C02_JoinPath Proofs.C06_Segments.
Open Scope N_scope.
Open Scope list_scope.

(* the PATH_SEGMENT encodings *)
Definition seg_set (st : scheme_type) : aset := if st_is_special st then T_SPECIAL_PATH_SEGMENT else T_PATH_SEGMENT.

Lemma path_set_seg st : path_set CPathSegmentSetter st = seg_set st.
Proof. reflexivity. Qed.

Lemma enc_sat S (Q : N -> bool) t : Q 37 = true -> (forall d, d < 16 -> Q (hex_upper d) = true) ->
  kept_sat S Q = true -> usv_list t -> forallb Q (encode S (utf8_encode t)) = true.
Proof.
  intros H37 Hh HS Ht. apply encode_utf8_forallb; [exact H37 | exact Hh | exact Ht|].
  apply Forall_forall. intros c _ Hk.
  pose proof (clean_forallb S Q [c] HS) as H. unfold clean in H. cbn [forallb] in H. rewrite Hk in H.
  specialize (H eq_refl). rewrite andb_true_r in H. exact H.
Qed.

Lemma hex_kept_PATH : forall d, d < 16 -> kept T_PATH (hex_upper d) = true.
Proof.
  assert (all_below 16 (fun d => kept T_PATH (hex_upper d)) = true) as H by (vm_compute; reflexivity).
  exact (all_below_spec 16 _ H).
Qed.

Lemma seg_sat_PATH st : kept_sat (seg_set st) (kept T_PATH) = true.
Proof. destruct st; vm_compute; reflexivity. Qed.
Lemma seg_sat_47 st : kept_sat (seg_set st) (fun c => negb (c =? 47)) = true.
Proof. destruct st; vm_compute; reflexivity. Qed.
Lemma seg_sat_92 st : st_is_special st = true -> kept_sat (seg_set st) (fun c => negb (c =? 92)) = true.
Proof. destruct st; try discriminate; intros _; vm_compute; reflexivity. Qed.

Lemma kept_PATH_37 : kept T_PATH 37 = true. Proof. vm_compute. reflexivity. Qed.

Definition acc_ok (st : scheme_type) (a : list N) : Prop :=
  clean T_PATH a = true /\ no_slash a = true /\ (st_is_special st = true -> no_byte 92 a = true).

Lemma acc_nil st : acc_ok st [].
Proof. split; [reflexivity | split; [reflexivity | intros _; reflexivity]]. Qed.

Lemma acc_app st a b : acc_ok st a -> acc_ok st b -> acc_ok st (a ++ b).
Proof.
  intros (A1 & A2 & A3) (B1 & B2 & B3). unfold acc_ok, clean, no_slash, no_byte in *. rewrite !forallb_app.
  rewrite A1, A2, B1, B2. split; [reflexivity | split; [reflexivity|]]. intros H. rewrite (A3 H), (B3 H). reflexivity.
Qed.

Lemma acc_enc st t : usv_list t -> acc_ok st (encode (seg_set st) (utf8_encode t)).
Proof.
  intros Ht. split; [|split].
  - exact (enc_sat (seg_set st) (kept T_PATH) t kept_PATH_37 hex_kept_PATH (seg_sat_PATH st) Ht).
  - exact (enc_sat (seg_set st) (fun c => negb (c =? 47)) t eq_refl hex_not_slash (seg_sat_47 st) Ht).
  - intros Hs. apply (enc_sat (seg_set st) (fun c => negb (c =? 92)) t eq_refl); [|exact (seg_sat_92 st Hs) | exact Ht].
    intros d Hd. apply hex_not_b; [exact Hd | lia].
Qed.

Lemma push_pending_seg st x pend : usv_list pend ->
  exists a, push_pending CPathSegmentSetter st x pend = x ++ a /\ acc_ok st a.
Proof.
  intros Hp. unfold push_pending. destruct pend as [|c r]; [exists []; rewrite app_nil_r; split; [reflexivity | apply acc_nil]|].
  rewrite path_set_seg. rewrite push_encoded_eq by (apply usv_rev; exact Hp).
  eexists. split; [reflexivity|]. apply acc_enc. apply usv_rev. exact Hp.
Qed.

Section Loop.
Variables (dbg : bool) (st : scheme_type) (ps : N).
Hypothesis Hf : st_is_file st = false.

(* the path state in the PathSegmentSetter context: the argument is appended (encoded), then finish_segment *)
Lemma ppl_setter_acc l : forall ser ss pend hh s' hh' rem, usv_list l -> usv_list pend ->
  parse_path_loop dbg CPathSegmentSetter st ps l ser ss pend hh = POk (s', hh', rem) ->
  exists a, acc_ok st a /\ finish_segment dbg st ps (ser ++ a) ss false hh = POk (s', hh').
Proof.
  induction l as [|c r IH]; intros ser ss pend hh s' hh' rem Hl Hp H.
  - cbn [parse_path_loop] in H. destruct (push_pending_seg st ser pend Hp) as (a & Ea & Ha). rewrite Ea in H.
    destruct (finish_segment dbg st ps (ser ++ a) ss false hh) as [[s2 h2]| |] eqn:Hx; cbn [pbind] in H; try discriminate H.
    unfold file_path_fixup in H. rewrite Hf in H. inversion H; subst s' hh' rem. exists a. split; [exact Ha | exact Hx].
  - apply usv_cons in Hl. destruct Hl as [Hc Hr]. cbn [parse_path_loop] in H. destruct (is_tnl c).
    + destruct (push_pending_seg st ser pend Hp) as (a & Ea & Ha). rewrite Ea in H.
      destruct (IH _ _ _ _ _ _ _ Hr ltac:(constructor) H) as (a1 & Ha1 & F). exists (a ++ a1).
      split; [apply acc_app; assumption | rewrite app_assoc; exact F].
    + cbn [ctx_eqb negb andb] in H. rewrite andb_false_r in H. rewrite Hf in H. cbn [andb] in H.
      apply (IH _ _ _ _ _ _ _ Hr) in H; [exact H|]. apply usv_cons. split; assumption.
Qed.
End Loop.

(* canonical segments for a scheme type *)
Definition gseg (st : scheme_type) (s : list N) : bool := if st_is_special st then good_seg_sp s else good_seg s.

Lemma gseg_good st s : gseg st s = true -> good_seg s = true.
Proof. unfold gseg. destruct (st_is_special st); [apply good_seg_sp_good | tauto]. Qed.

Lemma gseg_nil st : gseg st [] = true.
Proof. destruct st; reflexivity. Qed.

Lemma finish_gen dbg st pre segs cur hh : st_is_file st = false -> forallb (gseg st) segs = true -> acc_ok st cur ->
  exists segs' last',
    finish_segment dbg st (nlen pre) (Bs pre segs ++ cur) (nlen (Bs pre segs)) false hh = POk (Bs pre segs' ++ last', hh)
    /\ forallb (gseg st) segs' = true /\ gseg st last' = true.
Proof.
  intros Hf Hs (A1 & A2 & A3). destruct st; [discriminate Hf| |].
  - destruct (finish_inv_sp pre dbg segs cur false hh Hs A1 A2 (A3 eq_refl)) as (segs' & last' & E & G1 & G2 & _).
    rewrite app_nil_r in E. exists segs', last'. repeat split; assumption.
  - destruct (finish_inv pre dbg segs cur false hh Hs A1 A2) as (segs' & last' & E & G1 & G2 & _).
    rewrite app_nil_r in E. exists segs', last'. repeat split; assumption.
Qed.

(* the path during a session *)
Definition PI (st : scheme_type) (X : list N) : Prop :=
  (X = [] /\ st_is_special st = false)
  \/ exists segs last, X = path_text segs last /\ forallb (gseg st) segs = true /\ gseg st last = true.

Lemma snoc_cases {A} (l : list A) : l = [] \/ exists l0 t, l = l0 ++ [t].
Proof.
  destruct (rev l) as [|t r] eqn:E.
  - left. rewrite <- (rev_involutive l), E. reflexivity.
  - right. exists (rev r), t. rewrite <- (rev_involutive l), E. reflexivity.
Qed.

Lemma ends_no_slash A last : last <> [] -> no_slash last = true -> ends_with_byte 47 (A ++ last) = false.
Proof.
  intros Hn Hs. destruct (snoc_cases last) as [-> | (l0 & t & ->)]; [congruence|].
  unfold no_slash in Hs. rewrite forallb_app in Hs. apply andb_true_iff in Hs. destruct Hs as [_ Hs]. cbn [forallb] in Hs.
  rewrite andb_true_r in Hs. apply negb_true_iff in Hs.
  unfold ends_with_byte. rewrite app_assoc, rev_app_distr. cbn [rev app]. exact Hs.
Qed.

Section Ops.
Variables (dbg : bool) (st : scheme_type) (F : list N).
Hypothesis Hf : st_is_file st = false.
Notation afs := (nlen F + 1).

Lemma PI_len X : PI st X -> (X = [] \/ exists R, X = 47 :: R).
Proof. intros [[-> _] | (segs & last & -> & _)]; [left; reflexivity | right; eexists; reflexivity]. Qed.

Lemma pi_clear X : PI st X -> exists X', truncate (F ++ X) afs = F ++ X' /\ PI st X'.
Proof.
  intros H. destruct H as [[-> Hs] | (segs & last & -> & Hs & Hl)].
  - exists []. split; [rewrite app_nil_r; unfold truncate; apply nfirstn_all; lia | left; split; [reflexivity | exact Hs]].
  - exists [47]. split.
    + unfold truncate, path_text. change (F ++ 47 :: segs_text segs ++ last) with (F ++ [47] ++ segs_text segs ++ last).
      rewrite app_assoc. replace afs with (nlen (F ++ [47])) by (rewrite nlen_app; reflexivity). apply nfirstn_app_len.
    + right. exists [], []. split; [reflexivity | split; [reflexivity | apply gseg_nil]].
Qed.

Lemma pi_pop_if_empty X : PI st X ->
  let s := F ++ X in
  exists X', (if nlen s <=? afs then s else if ends_with_byte 47 (nskipn afs s) then nfirstn (nlen s - 1) s else s) = F ++ X'
             /\ PI st X'.
Proof.
  intros H s. destruct (nlen s <=? afs) eqn:E1; [exists X; split; [reflexivity | exact H]|].
  destruct (ends_with_byte 47 (nskipn afs s)) eqn:E2; [|exists X; split; [reflexivity | exact H]].
  destruct H as [[-> Hs] | (segs & last & -> & Hs & Hl)].
  - exfalso. unfold s in E1. rewrite nlen_app in E1. unfold nlen in E1 at 2. cbn [length] in E1. lia.
  - unfold s, path_text in *.
    assert (nskipn afs (F ++ 47 :: segs_text segs ++ last) = segs_text segs ++ last) as Esk.
    { change (F ++ 47 :: segs_text segs ++ last) with (F ++ [47] ++ segs_text segs ++ last).
      rewrite app_assoc. replace afs with (nlen (F ++ [47])) by (rewrite nlen_app; reflexivity). apply nskipn_app_len. }
    rewrite Esk in E2.
    destruct last as [|l0 lr].
    + destruct (snoc_cases segs) as [-> | (segs0 & t & ->)]; [cbn in E2; discriminate E2|].
      rewrite forallb_app in Hs. apply andb_true_iff in Hs. destruct Hs as [Hs0 Ht]. cbn [forallb] in Ht. rewrite andb_true_r in Ht.
      exists (path_text segs0 t). split; [|right; exists segs0, t; repeat split; assumption].
      rewrite segs_text_snoc. rewrite app_nil_r. unfold path_text.
      assert (F ++ 47 :: segs_text segs0 ++ t ++ [47] = (F ++ 47 :: segs_text segs0 ++ t) ++ [47]) as EE.
      { rewrite <- (app_assoc F). cbn [app]. rewrite <- app_assoc. reflexivity. }
      rewrite EE.
      rewrite nlen_app. replace (nlen (F ++ 47 :: segs_text segs0 ++ t) + nlen [47] - 1) with (nlen (F ++ 47 :: segs_text segs0 ++ t))
        by (change (nlen [47]) with 1; lia).
      apply nfirstn_app_len.
    + rewrite (ends_no_slash (segs_text segs) (l0 :: lr)) in E2; [discriminate E2 | discriminate|].
      exact (good_seg_no_slash _ (gseg_good st _ Hl)).
Qed.

Lemma pi_pop X : PI st X ->
  let s := F ++ X in
  exists X', (if nlen s <=? afs then s
              else truncate s (afs + match rfind 47 (nskipn afs s) with Some i => i | None => 0 end)) = F ++ X'
             /\ PI st X'.
Proof.
  intros H s. destruct (nlen s <=? afs) eqn:E1; [exists X; split; [reflexivity | exact H]|].
  destruct H as [[-> Hs] | (segs & last & -> & Hs & Hl)].
  - exfalso. unfold s in E1. rewrite nlen_app in E1. unfold nlen in E1 at 2. cbn [length] in E1. lia.
  - unfold s, path_text in *. clear s.
    assert (forall R0, F ++ 47 :: R0 = (F ++ [47]) ++ R0) as EF by (intros R0; rewrite <- app_assoc; reflexivity).
    assert (afs = nlen (F ++ [47])) as Ea by (rewrite nlen_app; reflexivity).
    assert (nskipn afs (F ++ 47 :: segs_text segs ++ last) = segs_text segs ++ last) as Esk
      by (rewrite EF, Ea; apply nskipn_app_len).
    rewrite Esk.
    pose proof (good_seg_no_slash _ (gseg_good st _ Hl)) as Hnl.
    destruct (snoc_cases segs) as [-> | (segs0 & t & ->)].
    + cbn [segs_text map concat app]. rewrite (rfind_none 47 last Hnl). rewrite N.add_0_r.
      exists [47]. split; [unfold truncate; rewrite EF, Ea; apply nfirstn_app_len|].
      right. exists [], []. split; [reflexivity | split; [reflexivity | apply gseg_nil]].
    + rewrite forallb_app in Hs. apply andb_true_iff in Hs. destruct Hs as [Hs0 Ht]. cbn [forallb] in Ht. rewrite andb_true_r in Ht.
      rewrite segs_text_snoc. set (A := segs_text segs0 ++ t).
      assert ((segs_text segs0 ++ t ++ [47]) ++ last = A ++ 47 :: last) as E1' by (unfold A; rewrite <- !app_assoc; reflexivity).
      rewrite E1'. rewrite (rfind_app_last 47 A last Hnl).
      exists (path_text segs0 t). split; [|right; exists segs0, t; repeat split; assumption].
      unfold truncate, path_text. fold A.
      assert (F ++ 47 :: A ++ 47 :: last = (F ++ 47 :: A) ++ 47 :: last) as E2' by (rewrite <- (app_assoc F); reflexivity).
      rewrite E2'. replace (afs + nlen A) with (nlen (F ++ 47 :: A)) by len_lia. apply nfirstn_app_len.
Qed.

(* push / extend *)
Lemma pi_extend segments : forall X s', PI st X -> Forall usv_list segments ->
  psm_extend_loop dbg st (nlen F) (F ++ X) segments = Some s' -> exists X', s' = F ++ X' /\ PI st X'.
Proof.
  induction segments as [|seg rest IH]; intros X s' HX Hu H; cbn [psm_extend_loop] in H.
  - inversion H; subst s'. exists X. split; [reflexivity | exact HX].
  - apply Forall_cons_iff in Hu. destruct Hu as [Hseg Hrest].
    destruct (psm_skips seg); [exact (IH X s' HX Hrest H)|].
    assert (exists segs1, forallb (gseg st) segs1 = true /\
              (if (nlen F + 1 <? nlen (F ++ X)) || (nlen (F ++ X) =? nlen F) then (F ++ X) ++ [47] else F ++ X) = Bs F segs1)
      as (segs1 & Hs1 & Es1).
    { destruct HX as [[-> Hs] | (segs & last & -> & Hs & Hl)].
      - exists []. split; [reflexivity|]. rewrite app_nil_r. rewrite N.eqb_refl, orb_true_r. rewrite Bs_nil, app_nil_r. reflexivity.
      - rewrite nlen_app. replace (nlen F + nlen (path_text segs last) =? nlen F) with false
          by (unfold path_text, nlen; cbn [length]; lia). rewrite orb_false_r.
        destruct (nlen F + 1 <? nlen F + nlen (path_text segs last)) eqn:E.
        + exists (segs ++ [last]). split; [rewrite forallb_app; cbn [forallb]; rewrite Hs, Hl; reflexivity|].
          rewrite Bs_path. rewrite Bs_snoc. rewrite <- app_assoc. reflexivity.
        + assert (segs_text segs ++ last = []) as E0.
          { destruct (segs_text segs ++ last) as [|y ys] eqn:E0; [reflexivity|]. exfalso.
            unfold path_text in E. rewrite E0 in E. unfold nlen in E. cbn [length] in E. lia. }
          apply app_eq_nil in E0. destruct E0 as [E0 ->].
          exists segs. split; [exact Hs|]. rewrite Bs_path. apply app_nil_r. }
    rewrite Es1 in H. unfold parse_path in H.
    destruct (parse_path_loop dbg CPathSegmentSetter st (nlen F) seg (Bs F segs1) (nlen (Bs F segs1)) [] true)
      as [[[s2 hh] rem]| |] eqn:Epp; cbn [unpres bindo] in H; try discriminate H.
    destruct (ppl_setter_acc dbg st (nlen F) Hf seg _ _ _ _ _ _ _ Hseg ltac:(constructor) Epp) as (a & Ha & Fin).
    destruct (finish_gen dbg st F segs1 a true Hf Hs1 Ha) as (segs' & last' & E & G1 & G2).
    rewrite E in Fin. inversion Fin; subst s2 hh.
    rewrite <- Bs_path in H. apply (IH (path_text segs' last') s'); [|exact Hrest | exact H].
    right. exists segs', last'. repeat split; assumption.
Qed.
End Ops.

(* a whole session on the frame  F ++ path ++ [?q] ++ [#f] *)
Section Session.
Variable dbg : bool.
Variables (sch Z : list N) (ue hs he : N) (hi : host_internal) (pt : option N).
Notation F := ((sch ++ [58]) ++ Z).
Notation st := (scheme_type_of sch).
Hypothesis Hf : st_is_file st = false.
Notation U pre q f := (qf_url pre (nlen sch) ue hs he hi pt (nlen F) q f).

Lemma scheme_session X ue' hs' he' hi' pt' ps' qs' fs' :
  scheme (mkUrl (F ++ X) (nlen sch) ue' hs' he' hi' pt' ps' qs' fs') = Some sch.
Proof. rewrite <- !app_assoc. apply scheme_prefix. Qed.

Section Run.
Variables (qs fs : option N) (ap : list N) (op : N).
Definition G (X : list N) : psm := mkPsm (mkUrl (F ++ X) (nlen sch) ue hs he hi pt (nlen F) qs fs) (nlen F + 1) ap op.

Lemma G_with X s : psm_with (G X) (F ++ s) = G s.
Proof. reflexivity. Qed.

Lemma extend_inv X segments p' : PI st X -> Forall usv_list segments -> psm_extend dbg (G X) segments = Some p' ->
  exists X', PI st X' /\ p' = G X'.
Proof.
  intros HX Hu H. unfold psm_extend in H. cbn [psm_url G] in H. unfold u_scheme_type in H. rewrite scheme_session in H.
  cbn [bindo path_start ser] in H.
  destruct (psm_extend_loop dbg st (nlen F) (F ++ X) segments) as [s'|] eqn:El; cbn [bindo] in H; [|discriminate H].
  destruct (pi_extend dbg st F Hf segments X s' HX Hu El) as (X' & -> & HX').
  inversion H; subst p'. exists X'. split; [exact HX' | apply G_with].
Qed.

Lemma apply_inv X o p' : PI st X -> psm_op_usv o -> psm_apply dbg (G X) o = Some p' -> exists X', PI st X' /\ p' = G X'.
Proof.
  intros HX Ho H. destruct o; cbn [psm_apply psm_op_usv] in *.
  - inversion H; subst p'. unfold psm_clear. cbn [psm_url G ser after_first_slash].
    destruct (pi_clear st F X HX) as (X' & E & HX'). rewrite E. exists X'. split; [exact HX' | apply G_with].
  - inversion H; subst p'. unfold psm_pop_if_empty. cbn [psm_url G ser after_first_slash].
    destruct (pi_pop_if_empty st F X HX) as (X' & E & HX'). cbv zeta in E.
    destruct (nlen (F ++ X) <=? nlen F + 1); [exists X; split; [exact HX | reflexivity]|].
    destruct (ends_with_byte 47 (nskipn (nlen F + 1) (F ++ X))); [|exists X; split; [exact HX | reflexivity]].
    rewrite E. exists X'. split; [exact HX' | apply G_with].
  - inversion H; subst p'. unfold psm_pop. cbn [psm_url G ser after_first_slash].
    destruct (pi_pop st F X HX) as (X' & E & HX'). cbv zeta in E.
    destruct (nlen (F ++ X) <=? nlen F + 1); [exists X; split; [exact HX | reflexivity]|].
    rewrite E. exists X'. split; [exact HX' | apply G_with].
  - unfold psm_push in H. apply (extend_inv X [s] p' HX); [constructor; [exact Ho | constructor] | exact H].
  - exact (extend_inv X ss p' HX Ho H).
Qed.

Lemma run_inv ops : forall X p', PI st X -> Forall psm_op_usv ops -> psm_run dbg (G X) ops = Some p' ->
  exists X', PI st X' /\ p' = G X'.
Proof.
  induction ops as [|o rest IH]; intros X p' HX Hu H; cbn [psm_run] in H.
  - inversion H; subst p'. exists X. split; [exact HX | reflexivity].
  - apply Forall_cons_iff in Hu. destruct Hu as [Ho Hrest].
    destruct (psm_apply dbg (G X) o) as [p1|] eqn:Ea; cbn [bindo] in H; [|discriminate H].
    destruct (apply_inv X o p1 HX Ho Ea) as (X1 & HX1 & ->). exact (IH X1 p' HX1 Hrest H).
Qed.
End Run.

Theorem session_frame X q f ops u' status : PI st X -> Forall psm_op_usv ops ->
  cannot_be_a_base (U (F ++ X) q f) = Some false ->
  path_segments_session dbg (U (F ++ X) q f) ops = Some (u', status) ->
  exists X', PI st X' /\ u' = U (F ++ X') q f.
Proof.
  intros HX Hu Ec H. unfold path_segments_session, path_segments_mut in H.
  rewrite Ec in H. cbn [bindo] in H. unfold psm_new in H. rewrite take_after_path_qf in H. cbn [bindo] in H.
  unfold u_scheme_type in H. rewrite scheme_session in H. cbn [bindo] in H.
  match type of H with context [if dbg then ?a else ?b] => destruct (if dbg then a else b) as [[]|] end;
    cbn [bindo] in H; [|discriminate H].
  cbn [path_start ser] in H.
  fold (G (qf_qs (nlen (F ++ X)) q) (qf_fs (nlen (F ++ X)) q f) (qf_text q f) (nlen (F ++ X)) X) in H.
  destruct (psm_run dbg (G _ _ _ _ X) ops) as [p1|] eqn:Er; cbn [bindo] in H; [|discriminate H].
  destruct (run_inv _ _ _ _ ops X p1 HX Hu Er) as (X' & HX' & ->).
  unfold psm_close, G in H. cbn [psm_url psm_old_pos psm_after_path] in H.
  rewrite restore_after_path_qf in H.
  inversion H; subst u'. exists X'. split; [exact HX' | reflexivity].
Qed.
End Session.
