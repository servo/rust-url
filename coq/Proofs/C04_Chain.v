(* Proofs/C04_Chain.v - C04's theorems on REACHED records: the premises base_ok / wf_b / wfh of the no-panic
   theorems reproduce themselves along chains of parse and join (C05_BaseOk: parse_url_base_ok) and along the
   histories of C03_ReachHist, so for a base or a receiver that is itself a result of Url::parse / Url::join
   (/ the setters of reach03) they are not needed as hypotheses.  The only hypothesis left is HostWf on the host
   functions (the Display text of a host is non-empty, does not start with ':' / '@', does not end in '/'). *)
From RU Require Import Base.Prelude Base.Utf8 Model.AsciiSet Gen.Tables Model.PercentEncoding
  Model.HostT Model.UrlRecord Model.Parser Model.Setters Model.WF
  Proofs.C03_WF Proofs.C06_Main Proofs.C04_ParseTotal Proofs.C04_ParseFile Proofs.C04_ParseFile7
  Proofs.C03_ReachParts Proofs.C03_ReachHist Proofs.C05_CompSteps3 Proofs.C04_SetPath Proofs.C04_SetHost.

(* without a base the class of F-C04-7 is empty *)
Lemma known_7x_no_base input : known_c04_7x None input = false.
Proof.
  unfold known_c04_7x. cbv zeta.
  destruct (parse_scheme CUrlParser (input_new_trim_c0 input)) as [[sch rem]|]; [|reflexivity].
  apply Bool.andb_false_r.
Qed.

(* Url::parse (no base): never a panic, every input, any host functions, both configurations *)
Theorem parse_no_base_no_panic dbg hp hpo hd ovr input : parse_url dbg hp hpo hd ovr None input <> PPanic.
Proof.
  intros H. apply (proj1 (parse_url_panic_iff dbg hp hpo hd ovr None input I)) in H.
  destruct H as [_ H]. rewrite known_7x_no_base in H. discriminate.
Qed.

Section Chain.
Variable hp hpo : list N -> result host.
Variable hd : host -> list N.
Hypothesis HW : HostWf hp hpo hd.

(* Url::join on a base that is a parse / join result (the chain may have been built in either configuration) *)
Theorem join_panic_iff_pj dbg dbg' ovr b input : PJ dbg' hp hpo hd b ->
  (parse_url dbg hp hpo hd ovr (Some b) input = PPanic <-> dbg = true /\ known_c04_7x (Some b) input = true).
Proof.
  intros R. apply (parse_url_panic_iff dbg hp hpo hd ovr (Some b) input).
  exact (proj1 (pj_base_ok dbg' hp hpo hd HW b R)).
Qed.

(* in particular: no panic at all in a release build, and none when the base is not a file URL *)
Theorem join_no_panic_pj dbg dbg' ovr b input : PJ dbg' hp hpo hd b ->
  dbg = false \/ list_eqb (b_scheme b) s_file = false ->
  parse_url dbg hp hpo hd ovr (Some b) input <> PPanic.
Proof.
  intros R Hc Hp. apply (proj1 (join_panic_iff_pj dbg dbg' ovr b input R)) in Hp. destruct Hp as [Hd Hk].
  destruct Hc as [Hc|Hc]; [congruence|].
  unfold known_c04_7x in Hk. cbv zeta in Hk. rewrite Hc in Hk. cbn [andb] in Hk.
  destruct (parse_scheme CUrlParser (input_new_trim_c0 input)) as [[sch rem]|]; [|discriminate].
  rewrite Bool.andb_false_r in Hk. discriminate.
Qed.

(* every record of a history of reach03 (parse, join, set_fragment, set_query, set_port, set_password, set_username,
   set_scheme, set_host(None), set_ip_host, set_path, path_segments_mut sessions - C03_ReachHist) is a legal
   receiver of every accessor and of every mutator theorem of C04 *)
Theorem reached_wf dbg u : reach03 dbg hp hpo hd u -> wf_b u = true /\ wfh u.
Proof. intros R. pose proof (reach03_wfh dbg hp hpo hd HW u R) as H. split; [exact (proj1 H) | exact H]. Qed.

Theorem pj_wf dbg u : PJ dbg hp hpo hd u -> wf_b u = true /\ wfh u /\ base_ok u = true.
Proof.
  intros R. destruct (pj_base_ok dbg hp hpo hd HW u R) as [Hb Ht].
  assert (W : wf_b u = true) by (unfold base_ok in Hb; apply Bool.andb_true_iff in Hb; exact (proj1 Hb)).
  split; [exact W|]. split; [exact (conj W Ht) | exact Hb].
Qed.

(* the two mutators with an exact panic class, on a reached receiver (dbg' = configuration of the history) *)
Theorem reached_setters dbg dbg' u : reach03 dbg' hp hpo hd u ->
  (forall p, exists u', set_path dbg u p = Some u')
  /\ (forall ops, path_segments_session dbg u ops = None <-> dbg = true /\ psm_assert_fails u = true)
  /\ (forall h, set_host dbg hp hpo hd u h = None <-> dbg = true /\ h = None /\ known_c04_1 u = true)
  /\ (forall h, exists r, set_ip_host dbg hd u h = Some r).
Proof.
  intros R. destruct (reached_wf dbg' u R) as [W _].
  split; [exact (fun p => set_path_total dbg u p W)|].
  split; [exact (fun ops => session_panics_iff dbg u ops W)|].
  split; [exact (fun h => set_host_panics_iff dbg hp hpo hd u h W)|].
  exact (fun h => set_ip_host_total dbg hp hpo hd u h W).
Qed.
End Chain.

(* the same for the histories of C05's CReach3: parse, join and ALL 19 mutators (Url setters, path_segments_mut
   sessions, the quirks setters), each step outside the known classes (step_gate3: the frame hypotheses of C06 / C05 -
   F-C02-2/-4/-8, F-C03-5, F-C06-5 - spelled on the pair of records).  Extra hypothesis IpDisp: Display writes an
   address as a non-empty text that does not start with ':' / '@' (second conjunct of C09_inst_HostWf for the host model). *)
Theorem creach3_wf hp hpo hd : HostWf hp hpo hd -> IpDisp hd ->
  forall dbg u, CReach3 dbg hp hpo hd u -> wf_b u = true /\ wfh u.
Proof.
  intros HW HI dbg u R. destruct (creach3_components dbg hp hpo hd HW HI u R) as [H _]. split; [exact (proj1 H) | exact H].
Qed.
