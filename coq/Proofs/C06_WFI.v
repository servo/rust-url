(* Proofs/C06_WFI.v - the executable invariant wf_b as a conjunction of propositions (both
   directions), so that it can be re-established for the result of a setter, and the transfer of
   each part between two records whose serializations share a prefix. *)
From RU Require Import Base.Prelude Model.UrlRecord Model.Parser Model.WF Proofs.C03_WF Proofs.C06_List.

Ltac split_andb H :=
  repeat match type of H with
         | (_ && _) = true => let H' := fresh "K" in apply andb_true_iff in H; destruct H as [H H']
         end.

Ltac splits := repeat match goal with |- _ /\ _ => split end.

Definition no_qh (c : N) : bool := negb ((c =? 63) || (c =? 35)).
Definition no_h (c : N) : bool := negb (c =? 35).

Definition path_end (u : url) : N :=
  match query_start u, fragment_start u with
  | Some q, _ => q | None, Some f => f | None, None => nlen (ser u) end.

Definition scheme_ok (u : url) : Prop :=
  1 <= scheme_end u
  /\ (exists c, nnth (ser u) 0 = Some c /\ is_alpha c = true)
  /\ forallb scheme_char (nfirstn (scheme_end u) (ser u)) = true
  /\ byte_eqb (ser u) (scheme_end u) 58 = true.

Lemma wf_scheme_iff u : wf_scheme u = true <-> scheme_ok u.
Proof.
  unfold wf_scheme, scheme_ok. rewrite !andb_true_iff. rewrite head_nnth.
  split.
  - intros [[[H1 H2] H3] H4]. repeat split; [lia | | exact H3 | exact H4].
    destruct (ser u) as [|c r]; [discriminate|]. exists c. split; [reflexivity | exact H2].
  - intros (H1 & (c & Hc & Ha) & H3 & H4). repeat split; [lia | | exact H3 | exact H4].
    destruct (ser u) as [|c' r]; [discriminate|]. inversion Hc; subst. exact Ha.
Qed.

Definition userinfo_ok (u : url) : Prop :=
  (username_end u = host_start u /\ username_end u = scheme_end u + 3 /\ byte_eqb (ser u) (username_end u) 58 = false)
  \/ (byte_eqb (ser u) (username_end u) 58 = true
      /\ username_end u + 2 <= host_start u /\ byte_eqb (ser u) (host_start u - 1) 64 = true)
  \/ (byte_eqb (ser u) (username_end u) 64 = true /\ host_start u = username_end u + 1).

Definition port_ok (u : url) : Prop :=
  match port u with
  | None => path_start u = host_end u
  | Some p => byte_eqb (ser u) (host_end u) 58 = true /\ path_start u = host_end u + 1 + nlen (decimal p) /\ p <= 65535
              /\ nfirstn (path_start u - (host_end u + 1)) (nskipn (host_end u + 1) (ser u)) = decimal p
  end.

Definition pathstart_ok (u : url) : Prop :=
  path_start u = nlen (ser u) \/ byte_eqb (ser u) (path_start u) 47 = true
  \/ byte_eqb (ser u) (path_start u) 63 = true \/ byte_eqb (ser u) (path_start u) 35 = true.

Definition auth_ok (u : url) : Prop :=
  scheme_end u + 3 <= username_end u /\ username_end u <= host_start u /\ host_start u <= host_end u
  /\ host_end u <= path_start u /\ path_start u <= nlen (ser u)
  /\ userinfo_ok u
  /\ (hosti u = HI_None -> host_start u = host_end u)
  /\ port_ok u.

Lemma byte_eqb_excl l i a b : a <> b -> byte_eqb l i a = true -> byte_eqb l i b = false.
Proof.
  unfold byte_eqb. destruct (nnth l i) as [x|]; [|discriminate]. intros Hne H.
  apply N.eqb_eq in H. subst x. apply N.eqb_neq. exact Hne.
Qed.

Lemma wf_authority_iff u : wf_authority u = true <-> auth_ok u /\ pathstart_ok u.
Proof.
  unfold wf_authority, auth_ok, pathstart_ok, userinfo_ok, port_ok. cbv zeta.
  split.
  - intros H. split_andb H.
    assert (scheme_end u + 3 <= username_end u /\ username_end u <= host_start u /\ host_start u <= host_end u
            /\ host_end u <= path_start u /\ path_start u <= nlen (ser u)) as A by lia.
    split; [|].
    + destruct A as (A1 & A2 & A3 & A4 & A5). repeat split; try assumption.
      * destruct (username_end u =? host_start u) eqn:E.
        -- left. repeat split; [lia | lia | apply negb_true_iff; exact K2].
        -- destruct (byte_eqb (ser u) (username_end u) 58) eqn:E58.
           ++ right. left. apply andb_true_iff in K3. destruct K3. repeat split; [lia | assumption].
           ++ right. right. apply andb_true_iff in K3. destruct K3. split; [assumption | lia].
      * intros Hn. rewrite Hn in K1. lia.
      * destruct (port u) as [p|]; [|lia]. split_andb K0.
        repeat split; [assumption | lia | lia | apply list_eqb_spec; assumption].
    + apply orb_true_iff in K. destruct K as [K|K]; [|tauto].
      apply orb_true_iff in K. destruct K as [K|K]; [|tauto].
      apply orb_true_iff in K. destruct K as [K|K]; [left; lia | tauto].
  - intros [(A1 & A2 & A3 & A4 & A5 & U & Hn & P) PS].
    repeat (apply andb_true_iff; split); try lia.
    + destruct U as [(U1 & U2 & U3)|[(U1 & U2 & U3)|(U1 & U2)]].
      * replace (username_end u =? host_start u) with true by lia. lia.
      * replace (username_end u =? host_start u) with false by lia. rewrite U1. rewrite U3.
        replace (username_end u + 2 <=? host_start u) with true by lia. reflexivity.
      * replace (username_end u =? host_start u) with false by lia.
        rewrite (byte_eqb_excl _ _ 64 58) by (try lia; exact U1). rewrite U1. cbn [andb]. lia.
    + destruct U as [(U1 & U2 & U3)|[(U1 & U2 & U3)|(U1 & U2)]].
      * replace (username_end u =? host_start u) with true by lia. rewrite U3. reflexivity.
      * replace (username_end u =? host_start u) with false by lia. reflexivity.
      * replace (username_end u =? host_start u) with false by lia. reflexivity.
    + destruct (hosti u); try reflexivity. specialize (Hn eq_refl). lia.
    + destruct (port u) as [p|]; [|lia]. destruct P as (P1 & P2 & P3 & P4).
      repeat (apply andb_true_iff; split); [exact P1 | apply list_eqb_spec; exact P4 | lia | lia].
    + destruct PS as [PS|[PS|[PS|PS]]].
      * replace (path_start u =? nlen (ser u)) with true by lia. reflexivity.
      * rewrite PS. rewrite ?orb_true_r. reflexivity.
      * rewrite PS. rewrite ?orb_true_r. reflexivity.
      * rewrite PS. rewrite ?orb_true_r. reflexivity.
Qed.

Definition noauth_ok (u : url) : Prop :=
  username_end u = scheme_end u + 1 /\ host_start u = scheme_end u + 1 /\ host_end u = scheme_end u + 1
  /\ hosti u = HI_None /\ port u = None /\ path_start u <= nlen (ser u)
  /\ (path_start u = scheme_end u + 1
      \/ (path_start u = scheme_end u + 3 /\ byte_eqb (ser u) (scheme_end u + 1) 47 = true
          /\ byte_eqb (ser u) (scheme_end u + 2) 46 = true /\ starts_with s_ss (nskipn (path_start u) (ser u)) = true)).

Lemma wf_no_authority_iff u : wf_no_authority u = true <-> noauth_ok u.
Proof.
  unfold wf_no_authority, noauth_ok. cbv zeta. split.
  - intros H. split_andb H. repeat split; try lia.
    + destruct (hosti u); try discriminate; reflexivity.
    + destruct (port u); [discriminate | reflexivity].
    + apply orb_true_iff in K. destruct K as [K|K]; [left; lia|]. right. split_andb K.
      repeat split; [lia | assumption | assumption | assumption].
  - intros (H1 & H2 & H3 & H4 & H5 & H6 & H7).
    repeat (apply andb_true_iff; split); try lia.
    + rewrite H4. reflexivity.
    + rewrite H5. reflexivity.
    + destruct H7 as [H7|(A & B & C & D)].
      * replace (path_start u =? scheme_end u + 1) with true by lia. reflexivity.
      * rewrite B, C, D. replace (path_start u =? scheme_end u + 3) with true by lia. apply orb_true_r.
Qed.

Definition qf_ok (u : url) : Prop :=
  (match query_start u with Some q => path_start u <= q /\ byte_eqb (ser u) q 63 = true | None => True end)
  /\ (match fragment_start u with Some f => path_start u <= f /\ byte_eqb (ser u) f 35 = true | None => True end)
  /\ (match query_start u, fragment_start u with Some q, Some f => q < f | _, _ => True end)
  /\ forallb no_qh (nfirstn (path_end u - path_start u) (nskipn (path_start u) (ser u))) = true
  /\ (match query_start u, fragment_start u with
      | Some q, Some f => forallb no_h (nfirstn (f - (q + 1)) (nskipn (q + 1) (ser u))) = true
      | Some q, None => forallb no_h (nskipn (q + 1) (ser u)) = true
      | _, _ => True
      end).

Lemma wf_qf_iff u : wf_query_fragment u = true <-> qf_ok u.
Proof.
  unfold wf_query_fragment, qf_ok, path_end. cbv zeta. fold no_qh. fold no_h.
  rewrite !andb_true_iff.
  destruct (query_start u) as [q|], (fragment_start u) as [f|]; rewrite ?andb_true_iff; intuition lia.
Qed.

Lemma wf_b_iff u : wf_b u = true <->
  scheme_ok u /\ (if has_authority_b u then auth_ok u /\ pathstart_ok u else noauth_ok u) /\ qf_ok u.
Proof.
  unfold wf_b. rewrite !andb_true_iff, wf_scheme_iff, wf_qf_iff.
  destruct (has_authority_b u); [rewrite wf_authority_iff | rewrite wf_no_authority_iff]; tauto.
Qed.

(* transfer along a shared prefix *)
Lemma pre_byte_eqb a s s' i c : agree_pre a s s' -> i < a -> byte_eqb s' i c = byte_eqb s i c.
Proof. intros H Hi. unfold byte_eqb. rewrite (pre_nnth a s s' i H Hi). reflexivity. Qed.

Lemma suf_byte_eqb b b' s s' i i' c : agree_suf b b' s s' -> b <= i -> i' = i - b + b' ->
  byte_eqb s' i' c = byte_eqb s i c.
Proof. intros H Hi E. unfold byte_eqb. rewrite (suf_nnth b b' s s' i i' H Hi E). reflexivity. Qed.

Lemma scheme_ok_pre a u u' : agree_pre a (ser u) (ser u') -> scheme_end u < a -> scheme_end u' = scheme_end u ->
  scheme_ok u -> scheme_ok u'.
Proof.
  intros H Hse E (H1 & (c & Hc & Ha) & H3 & H4). unfold scheme_ok. rewrite E.
  repeat split.
  - exact H1.
  - exists c. split; [|exact Ha]. rewrite (pre_nnth a _ _ 0 H) by lia. exact Hc.
  - rewrite (pre_firstn a _ _ _ H) by lia. exact H3.
  - rewrite (pre_byte_eqb a _ _ _ _ H Hse). exact H4.
Qed.

Lemma has_authority_b_pre a u u' : agree_pre a (ser u) (ser u') -> scheme_end u + 3 <= a ->
  scheme_end u' = scheme_end u -> has_authority_b u' = has_authority_b u.
Proof.
  intros H Hse E. unfold has_authority_b. rewrite E. apply (pre_starts_with a); [exact H|].
  change (nlen s_css) with 3. exact Hse.
Qed.

(* the authority part lies before the cut *)
Lemma auth_ok_pre a u u' : agree_pre a (ser u) (ser u') -> path_start u <= a -> a <= nlen (ser u') ->
  scheme_end u' = scheme_end u -> username_end u' = username_end u -> host_start u' = host_start u ->
  host_end u' = host_end u -> hosti u' = hosti u -> port u' = port u -> path_start u' = path_start u ->
  username_end u < a ->
  auth_ok u -> auth_ok u'.
Proof.
  intros H Hps Hlen E1 E2 E3 E4 E5 E6 E7 Hue (A1 & A2 & A3 & A4 & A5 & U & Hn & P).
  unfold auth_ok, userinfo_ok, port_ok. rewrite E1, E2, E3, E4, E5, E6, E7.
  repeat split; try assumption; try lia.
  - destruct U as [(U1 & U2 & U3)|[(U1 & U2 & U3)|(U1 & U2)]].
    + left. repeat split; try assumption. rewrite (pre_byte_eqb a _ _ _ _ H) by lia. exact U3.
    + right. left. rewrite !(pre_byte_eqb a _ _ _ _ H) by lia. tauto.
    + right. right. rewrite !(pre_byte_eqb a _ _ _ _ H) by lia. tauto.
  - unfold port_ok in P. destruct (port u) as [p|]; [|exact P].
    destruct P as (P1 & P2 & P3 & P4).
    assert (host_end u < a) as Hhe by (pose proof (byte_eqb_lt _ _ _ P1); lia).
    rewrite (pre_byte_eqb a _ _ _ _ H) by lia.
    rewrite (pre_piece a _ _ _ _ H) by lia. tauto.
Qed.

Lemma noauth_ok_pre a u u' : agree_pre a (ser u) (ser u') -> path_start u <= a -> a <= nlen (ser u') ->
  scheme_end u' = scheme_end u -> username_end u' = username_end u -> host_start u' = host_start u ->
  host_end u' = host_end u -> hosti u' = hosti u -> port u' = port u -> path_start u' = path_start u ->
  (path_start u = scheme_end u + 3 -> starts_with s_ss (nskipn (path_start u) (ser u')) = true) ->
  noauth_ok u -> noauth_ok u'.
Proof.
  intros H Hps Hlen E1 E2 E3 E4 E5 E6 E7 Hss (H1 & H2 & H3 & H4 & H5 & H6 & H7).
  unfold noauth_ok. rewrite E1, E2, E3, E4, E5, E6, E7.
  repeat split; try assumption; try lia.
  destruct H7 as [H7|(A & B & C & D)]; [left; exact H7|]. right.
  rewrite !(pre_byte_eqb a _ _ _ _ H) by lia. repeat split; try assumption. apply Hss. exact A.
Qed.
