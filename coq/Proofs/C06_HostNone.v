(* Proofs/C06_HostNone.v - Url::set_host(None) on a well-formed record: host, credentials and port
   are removed together; scheme, path, query and fragment read the same.
   Two classes of rust-url's behaviour are excluded explicitly (and refuted by witnesses below):
     - the path is empty and nothing follows it: the setter rewrites the path to "/" (F-C06-5);
     - the path starts with "//": the result has no "/." marker and re-reads as an authority (F-C02-2). *)
From RU Require Import Base.Prelude Model.HostT Model.UrlRecord Model.Parser Model.Setters Model.WF
  Proofs.ListN Proofs.C03_WF Proofs.C06_List Proofs.C06_WFI Proofs.C06_Tail Proofs.C06_Steps Proofs.C06_Suffix
  Proofs.C06_Front Proofs.C06_Port.

Definition path_empty_at_end (u : url) : bool := nlen (ser u) =? path_start u.
Definition path_starts_with_2slash (u : url) : bool := starts_with s_ss (nskipn (path_start u) (ser u)).

(* the record the setter builds *)
Definition without_host (u : url) (new_ps : N) : url :=
  mkUrl (nfirstn new_ps (ser u) ++ nskipn (path_start u) (ser u)) (scheme_end u) new_ps new_ps new_ps HI_None None new_ps
        (option_map (shift (path_start u) new_ps) (query_start u))
        (option_map (shift (path_start u) new_ps) (fragment_start u)).

Section WithoutHost.
Variables (dbg : bool) (u : url) (new_ps : N).
Hypothesis W : wf_b u = true.
Hypothesis Ha : has_authority_b u = true.
Hypothesis Hne : path_empty_at_end u = false.
Hypothesis Hss : path_starts_with_2slash u = false.
Hypothesis Hnp : new_ps = scheme_end u + 1 \/ new_ps = scheme_end u + 3.

Let u' := without_host u new_ps.
Let b := path_start u.

Lemma wh_bounds : scheme_end u + 3 <= path_start u /\ path_start u < nlen (ser u) /\ new_ps <= path_start u.
Proof.
  pose proof (wf_auth_facts u W Ha) as F.
  pose proof (af_ue F); pose proof (af_hs F); pose proof (af_he F); pose proof (af_ps F); pose proof (af_len F).
  unfold path_empty_at_end in Hne. lia.
Qed.

Lemma wh_pre : agree_pre new_ps (ser u) (ser u').
Proof. destruct wh_bounds. change (ser u') with (nfirstn new_ps (ser u) ++ nskipn b (ser u)). apply agree_pre_nfirstn. lia. Qed.

Lemma wh_suf : agree_suf b new_ps (ser u) (ser u').
Proof.
  destruct wh_bounds. rewrite <- (N.add_0_r new_ps) at 1. change (ser u') with (nfirstn new_ps (ser u) ++ [] ++ nskipn b (ser u)).
  apply (splice_suf new_ps b []). lia.
Qed.

Lemma wh_len : nlen (ser u') = new_ps + (nlen (ser u) - b).
Proof.
  destruct wh_bounds. change (ser u') with (nfirstn new_ps (ser u) ++ nskipn b (ser u)).
  rewrite nlen_app, nlen_nfirstn, nlen_nskipn by lia. reflexivity.
Qed.

Lemma wh_tail : shifted_tail b new_ps u u'.
Proof. split; [|split; reflexivity]. change (path_start u') with new_ps. unfold shift, b. lia. Qed.

Lemma wh_path_byte : byte_eqb (ser u) (path_start u) 47 = true \/ byte_eqb (ser u) (path_start u) 63 = true
  \/ byte_eqb (ser u) (path_start u) 35 = true.
Proof.
  pose proof W as W0. apply wf_b_iff in W0. rewrite Ha in W0. destruct W0 as (_ & (_ & PS) & _).
  destruct wh_bounds. destruct PS as [PS|PS]; [lia | exact PS].
Qed.

Lemma wh_byte_at_ps c : byte_eqb (ser u') new_ps c = byte_eqb (ser u) (path_start u) c.
Proof.
  replace new_ps with (shift b new_ps b) at 1 by (unfold shift; lia).
  apply (suf_byte_eqb b new_ps); [apply wh_suf | lia | reflexivity].
Qed.

Lemma wh_has_authority : has_authority_b u' = (new_ps =? scheme_end u + 3).
Proof.
  destruct wh_bounds as (B1 & B2 & B3).
  destruct Hnp as [E|E].
  - replace (new_ps =? scheme_end u + 3) with false by lia.
    destruct (has_authority_b u') eqn:Ha'; [|reflexivity]. exfalso.
    unfold has_authority_b in Ha'. change (scheme_end u') with (scheme_end u) in Ha'. apply css_bytes in Ha'.
    destruct Ha' as (_ & C1 & C2).
    (* bytes se+1, se+2 of the new serialization are the first two path bytes *)
    unfold path_starts_with_2slash in Hss.
    assert (nnth (ser u) (path_start u) = Some 47 /\ nnth (ser u) (path_start u + 1) = Some 47) as [D1 D2].
    { rewrite <- (suf_nnth b new_ps _ _ (path_start u) (scheme_end u + 1) wh_suf) by (unfold b; lia).
      rewrite <- (suf_nnth b new_ps _ _ (path_start u + 1) (scheme_end u + 2) wh_suf) by (unfold b; lia). tauto. }
    assert (starts_with s_ss (nskipn (path_start u) (ser u)) = true) as X.
    { rewrite (nskipn_cons_of_nnth _ _ _ D1), (nskipn_cons_of_nnth _ _ _ D2). reflexivity. }
    congruence.
  - replace (new_ps =? scheme_end u + 3) with true by lia.
    rewrite (has_authority_b_pre new_ps u u' wh_pre) by (try lia; reflexivity). exact Ha.
Qed.

Lemma wh_wf : wf_b u' = true.
Proof.
  destruct wh_bounds as (B1 & B2 & B3). pose proof wh_len as Hl.
  destruct (wf_scheme_facts u W) as (Hse & Hcolon & Hselt).
  pose proof W as W0. apply wf_b_iff in W0. rewrite Ha in W0. destruct W0 as (S & (AU & PS) & Q).
  apply wf_b_iff. split; [|split].
  - apply (scheme_ok_pre new_ps u u'); [apply wh_pre | lia | reflexivity | exact S].
  - rewrite wh_has_authority. destruct Hnp as [E|E].
    + replace (new_ps =? scheme_end u + 3) with false by lia.
      unfold noauth_ok. change (username_end u') with new_ps. change (host_start u') with new_ps.
      change (host_end u') with new_ps. change (path_start u') with new_ps. change (scheme_end u') with (scheme_end u).
      split; [lia|]. split; [lia|]. split; [lia|]. split; [reflexivity|]. split; [reflexivity|].
      split; [lia|]. left. exact E.
    + replace (new_ps =? scheme_end u + 3) with true by lia. split.
      * unfold auth_ok. change (username_end u') with new_ps. change (host_start u') with new_ps.
        change (host_end u') with new_ps. change (path_start u') with new_ps. change (scheme_end u') with (scheme_end u).
        split; [lia|]. split; [lia|]. split; [lia|]. split; [lia|]. split; [lia|]. split; [|split].
        -- left. splits; [reflexivity | exact E |]. change (username_end u') with new_ps.
           rewrite wh_byte_at_ps. destruct wh_path_byte as [X|[X|X]];
             [apply (byte_eqb_excl _ _ 47 58) | apply (byte_eqb_excl _ _ 63 58) | apply (byte_eqb_excl _ _ 35 58)];
             try exact X; lia.
        -- intros _. reflexivity.
        -- reflexivity.
      * apply (sfx_pathstart_ok u u' b new_ps W wh_suf); [unfold b; lia | lia | apply wh_tail | exact PS].
  - apply (sfx_qf_ok u u' b new_ps W wh_suf); [unfold b; lia | lia | apply wh_tail].
Qed.

Lemma wh_scheme : scheme u' = scheme u.
Proof.
  destruct wh_bounds. rewrite (scheme_eval u' wh_wf), (scheme_eval u W). unfold piece. cbn [pidx].
  change (scheme_end u') with (scheme_end u). rewrite !N.sub_0_r, !nskipn_0.
  rewrite (pre_firstn new_ps _ _ _ wh_pre) by lia. reflexivity.
Qed.

Lemma wh_back : same_back dbg u u'.
Proof.
  destruct wh_bounds. pose proof wh_len.
  apply (sfx_back dbg u u' b new_ps W wh_wf wh_suf); [unfold b; lia | lia | apply wh_tail].
Qed.

Lemma wh_username : username dbg u' = Some [].
Proof.
  rewrite (username_eval dbg u' wh_wf). f_equal. unfold piece. cbn [pidx]. rewrite wh_has_authority.
  change (username_end u') with new_ps. change (scheme_end u') with (scheme_end u).
  destruct Hnp as [E|E]; rewrite E.
  - replace (scheme_end u + 1 =? scheme_end u + 3) with false by lia. rewrite N.sub_diag. reflexivity.
  - rewrite N.eqb_refl, N.sub_diag. reflexivity.
Qed.

Lemma wh_password : password dbg u' = Some None.
Proof.
  rewrite (password_piece dbg u' wh_wf).
  assert (has_password_b u' = false) as Hp.
  { unfold has_password_b. rewrite wh_has_authority. destruct Hnp as [E|E].
    - replace (new_ps =? scheme_end u + 3) with false by lia. reflexivity.
    - change (username_end u') with new_ps. rewrite wh_byte_at_ps.
      destruct wh_path_byte as [X|[X|X]];
        [rewrite (byte_eqb_excl _ _ 47 58) | rewrite (byte_eqb_excl _ _ 63 58) | rewrite (byte_eqb_excl _ _ 35 58)];
        try exact X; try lia; apply andb_false_r. }
  rewrite Hp. reflexivity.
Qed.

Lemma wh_host_str : host_str u' = Some None.
Proof. reflexivity. Qed.

End WithoutHost.

Section SetHostNone.
Variable dbg : bool.
Variable host_parse : list N -> result host.
Variable host_parse_opaque : list N -> result host.
Variable host_display : host -> list N.

Theorem set_host_none_ok u u' st : wf_b u = true ->
  set_host dbg host_parse host_parse_opaque host_display u None = Some (u', st) ->
  (st <> SOk -> u' = u)
  /\ (st = SOk -> has_host u = false -> u' = u)
  /\ (st = SOk -> has_host u = true -> path_empty_at_end u = false -> path_starts_with_2slash u = false ->
      wf_b u' = true /\ host_text_ok u' /\ scheme u' = scheme u /\ same_back dbg u u'
      /\ username dbg u' = Some [] /\ password dbg u' = Some None /\ host_str u' = Some None /\ port u' = None).
Proof.
  intros W H. unfold set_host in H. rewrite (cannot_be_a_base_eval u W) in H. cbn [bindo] in H.
  destruct (negb (byte_eqb (ser u) (scheme_end u + 1) 47)).
  { inversion H; subst. split; [reflexivity|]. split; intros; discriminate. }
  unfold u_scheme_type in H. rewrite (scheme_eval u W) in H. cbn [bindo] in H.
  set (st0 := scheme_type_of (piece u (pidx u BeforeScheme) (pidx u AfterScheme))) in H.
  destruct (has_host u) eqn:Hh.
  2:{ inversion H; subst. split; [intros X; contradiction|]. split; [reflexivity | intros; discriminate]. }
  destruct (st_is_special st0 && negb (st_is_file st0)).
  { inversion H; subst. split; [reflexivity|]. split; intros; discriminate. }
  pose proof (has_host_authority u W Hh) as Ha.
  destruct (dbg_byte_is dbg _ (scheme_end u) 58); cbn [bindo] in H; [|discriminate].
  destruct (dbg_byte_is dbg _ (path_start u) 47); cbn [bindo] in H; [|discriminate].
  match type of H with bindo (assert_o ?c) _ = _ => destruct c eqn:Ec; cbn [assert_o bindo] in H; [|discriminate] end.
  split; [|split].
  - intros Hne. exfalso. unfold sub_off_opt in H.
    destruct (adjust_opt dbg (query_start u) _ 0); cbn [bindo] in H; [|discriminate].
    destruct (adjust_opt dbg (fragment_start u) _ 0); cbn [bindo] in H; [|discriminate].
    inversion H; subst. apply Hne. reflexivity.
  - intros _ X. discriminate.
  - intros _ _ Hne Hss. unfold path_empty_at_end in Hne. rewrite Hne in H, Ec.
    set (new_ps := if st_is_file st0 then scheme_end u + 3 else scheme_end u + 1) in *.
    assert (new_ps = scheme_end u + 1 \/ new_ps = scheme_end u + 3) as Hnp by (subst new_ps; destruct (st_is_file st0); lia).
    fold (path_empty_at_end u) in Hne.
    destruct (wh_bounds u new_ps W Ha Hne Hnp) as (B1 & B2 & B3).
    destruct (wf_tail_offsets_ge u (path_start u) W ltac:(lia)) as [Gq Gf].
    unfold sub_off_opt in H. rewrite !adjust_opt_ok in H
      by (destruct (query_start u), (fragment_start u); try exact I; lia).
    cbn [bindo] in H.
    assert (u' = without_host u new_ps /\ st = SOk) as [-> ->].
    { inversion H; subst. split; [|reflexivity]. unfold without_host. f_equal;
        apply option_map_shift_ext; intros i Hi; unfold shift; [rewrite Hi in Gq | rewrite Hi in Gf]; lia. }
    splits.
    + apply wh_wf; assumption.
    + intros X. discriminate X.
    + apply wh_scheme; assumption.
    + apply wh_back; assumption.
    + apply wh_username; assumption.
    + apply wh_password; assumption.
    + reflexivity.
    + reflexivity.
Qed.

End SetHostNone.

(* the two excluded classes are real: witnesses *)
Definition hn_hp (s : list N) : result host := Ok (HDomain s).
Definition hn_hd (h : host) : list N := match h with HDomain d => d | _ => [] end.

(* "a://h" : set_host(None) gives "a:/" - the empty path became "/" *)
Definition hn_w1 : url := mkUrl [97; 58; 47; 47; 104] 1 4 4 5 HI_Domain None 5 None None.
Lemma set_host_none_empty_path_refuted :
  wf_b hn_w1 = true /\ path_empty_at_end hn_w1 = true
  /\ exists u', set_host true hn_hp hn_hp hn_hd hn_w1 None = Some (u', SOk)
     /\ path hn_w1 = Some [] /\ path u' = Some [47].
Proof. split; [vm_compute; reflexivity|]. split; [vm_compute; reflexivity|]. eexists. split; [vm_compute; reflexivity|]. split; vm_compute; reflexivity. Qed.

(* "a://h//x" : set_host(None) gives "a://x" whose record is not well-formed (it re-reads as host x) *)
Definition hn_w2 : url := mkUrl [97; 58; 47; 47; 104; 47; 47; 120] 1 4 4 5 HI_Domain None 5 None None.
Lemma set_host_none_double_slash_refuted :
  wf_b hn_w2 = true /\ path_starts_with_2slash hn_w2 = true
  /\ exists u', set_host true hn_hp hn_hp hn_hd hn_w2 None = Some (u', SOk)
     /\ ser u' = [97; 58; 47; 47; 120] /\ wf_b u' = false.
Proof. split; [vm_compute; reflexivity|]. split; [vm_compute; reflexivity|]. eexists. split; [vm_compute; reflexivity|]. split; vm_compute; reflexivity. Qed.
