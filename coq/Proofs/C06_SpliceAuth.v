(* Proofs/C06_SpliceAuth.v - WHOLE-URL parser agreement, part 2: URLs with an authority (both canonical classes:
   non-special scheme, special non-file scheme).  The four parser states behind "scheme://" on canonical text
   with any admissible tail, the composition into Parser::parse_url, and the agreement for set_port. *)
From RU Require Import Base.Prelude Base.Utf8 Base.Utf8Facts Model.AsciiSet Gen.Tables
  Model.PercentEncoding Model.HostT Model.UrlRecord Model.Parser Model.Setters Model.WF
  Proofs.ListN Proofs.C14_Set Proofs.C14_Enc Proofs.C14_Views Proofs.C02_Enc Proofs.C02_Parts
  Proofs.C02_Opaque Proofs.C02_Path Proofs.C02_PathL1 Proofs.C02_Reach Proofs.C16_RT Proofs.C02_AuthParts
  Proofs.C02_Auth Proofs.C02_AuthWf Proofs.C02_PathSp Proofs.C02_AuthSp Proofs.C02_AuthMain Proofs.C02_SetQF
  Proofs.C02_Canon Proofs.C02_SetPort Proofs.C06_List Proofs.C06_Agree Proofs.C06_AgreeUrl Proofs.C06_Splice.
From RU Require Import Proofs.Decimal.
Open Scope N_scope.
Open Scope list_scope.

(* the old serialization with ':' and the decimal text of n in the port position *)
Definition splice_port (u : url) (n : N) : list N :=
  nfirstn (host_end u) (ser u) ++ 58 :: decimal n ++ nskipn (path_start u) (ser u).

Section SpliceAuth.
Variable dbg : bool.
Variable hp hpo : list N -> result host.
Variable hd : host -> list N.
Hypothesis HRT : HostRT hp hpo hd.

Notation auth_ok := (auth_ok hp hpo hd).
Notation auth_url := (auth_url hd).
Notation auth_ser := (auth_ser hd).
Notation auth_front := (auth_front hd).
Notation auth_pre := (auth_pre hd).
Notation host_ok := (host_ok hp hpo hd).

(* the two canonical classes with an authority *)
Definition auth_cls (st : scheme_type) (p : pth) : Prop :=
  (st = STNotSpecial /\ pth_ok p) \/ (st = STSpecialNotFile /\ pth_ok_sp p).

Lemma auth_cls_nf st p : auth_cls st p -> st_is_file st = false.
Proof. intros [[-> _]|[-> _]]; reflexivity. Qed.

(* what must stand at the head of the text behind "scheme://" for parse_url to reach after_double_slash there *)
Definition head_cls (st : scheme_type) (T : list N) : Prop :=
  st = STNotSpecial \/ (st = STSpecialNotFile /\ match T with c :: _ => is_tnl c = false /\ is_slash_or_bslash c = false | [] => False end).

(* composition: the four states write the canonical texts => parse_url returns the canonical record *)
Theorem auth_parse st sch ui h pt p q f T R1 R2 R3 hh :
  auth_ok st sch ui h pt p q f -> head_cls st T -> T <> [] -> first_ok (rev T) ->
  parse_userinfo st ((sch ++ [58]) ++ [47; 47]) T
    = POk (((sch ++ [58]) ++ [47; 47]) ++ ui_text ui, nlen ((sch ++ [58]) ++ [47; 47]) + ui_ulen ui, R1) ->
  parse_host_and_port hp hpo hd CUrlParser st (nlen sch) (((sch ++ [58]) ++ [47; 47]) ++ ui_text ui) R1
    = POk (auth_front sch ui h pt, nlen (((sch ++ [58]) ++ [47; 47]) ++ ui_text ui) + nlen (hd h), hi_of_host h, pt, R2) ->
  parse_path_start dbg CUrlParser st true (auth_front sch ui h pt) R2 = POk (auth_pre sch ui h pt p, hh, R3) ->
  parse_query_and_fragment None CUrlParser st (nlen sch) (auth_pre sch ui h pt p) R3
    = POk (auth_ser sch ui h pt p q f, qf_qs (nlen (auth_pre sch ui h pt p)) q, qf_fs (nlen (auth_pre sch ui h pt p)) q f) ->
  parse_url dbg hp hpo hd None None (sch ++ 58 :: 47 :: 47 :: T) = POk (auth_url sch ui h pt p q f).
Proof.
  intros K Hh Hne Hl H1 H2 H3 H4. pose proof (hi_none_ui hp hpo hd _ _ _ _ _ _ _ _ K) as Hemp.
  pose proof (front_len hd sch ui h pt) as FL.
  assert (edge_ok (sch ++ 58 :: 47 :: 47 :: T)) as He.
  { split; [apply scheme_first_ok; exact (ak_sch _ _ _ _ _ _ _ _ _ _ _ K)|].
    change (sch ++ 58 :: 47 :: 47 :: T) with (sch ++ [58; 47; 47] ++ T). rewrite app_assoc. apply first_ok_rev_app2; assumption. }
  assert (nlen sch <= U32_MAX_P) as Hb by (pose proof (ak_b _ _ _ _ _ _ _ _ _ _ _ K); lia).
  destruct Hh as [->|[-> HT]].
  - rewrite parse_url_ads_nonspecial; [| exact (ak_sch _ _ _ _ _ _ _ _ _ _ _ K) | exact (ak_st _ _ _ _ _ _ _ _ _ _ _ K) | exact Hb | exact He].
    exact (ads_compose dbg hp hpo hd None STNotSpecial sch ui h pt p q f T R1 R2 R3 hh (ak_b _ _ _ _ _ _ _ _ _ _ _ K) Hemp H1 H2 H3 H4).
  - rewrite parse_url_ads_special; [| exact (ak_sch _ _ _ _ _ _ _ _ _ _ _ K) | exact (ak_st _ _ _ _ _ _ _ _ _ _ _ K) | exact Hb | exact He | exact HT].
    exact (ads_compose dbg hp hpo hd None STSpecialNotFile sch ui h pt p q f T R1 R2 R3 hh (ak_b _ _ _ _ _ _ _ _ _ _ _ K) Hemp H1 H2 H3 H4).
Qed.

(* the path state on the canonical path of either class *)
Lemma pps_cls st sch ui h pt p X hh : host_ok st h -> auth_cls st p -> qh_ok X ->
  parse_path_start dbg CUrlParser st hh (auth_front sch ui h pt) (pth_text p ++ X) = POk (auth_pre sch ui h pt p, hh, X).
Proof.
  intros Kh [[-> Kp]|[-> Kp]] HX.
  - apply pps_canon; assumption.
  - destruct p as [[segs last]|]; [|contradiction]. destruct Kp as [Ksg Kla]. unfold C02_Auth.auth_pre. cbn [pth_text].
    apply pps_canon_sp; try assumption. apply (front_not_slash hp hpo hd). exact Kh.
Qed.

Lemma pth_cls_ok st p : auth_cls st p -> pth_ok p.
Proof. intros [[_ H]|[_ H]]; [exact H | apply pth_ok_sp_ok; exact H]. Qed.

Lemma qf_qh_ok q f : qh_ok (qf_text q f).
Proof. unfold qf_text. destruct q; destruct f; cbn; auto. Qed.

(* everything behind the port of a canonical record: above U+0020, and '/'-, '?'- or '#'-led *)
Lemma back_above st p q f : auth_cls st p -> opt_clean (query_set st) q -> opt_clean T_FRAGMENT f ->
  forallb above_space (pth_text p ++ qf_text q f) = true.
Proof.
  intros Hc Hq Hf. rewrite forallb_app. apply andb_true_iff. split; apply okc_above.
  - apply pth_text_okc. exact (pth_cls_ok st p Hc).
  - apply (qf_text_okc st); assumption.
Qed.

(* set_port on a canonical record, result explicit *)
Definition norm_pt (sch : list N) (n : N) : option N := if opt_eqb (Some n) (default_port sch) then None else Some n.

Theorem set_port_auth_eq st sch ui h pt p q f n u' : auth_ok st sch ui h pt p q f -> st_is_file st = false ->
  set_port dbg (auth_url sch ui h pt p q f) (Some n) = Some (u', SOk) ->
  h <> HDomain [] /\ u' = auth_url sch ui h (norm_pt sch n) p q f.
Proof.
  intros K Hnf. unfold set_port. rewrite (auth_cannot_port hp hpo hd st sch ui h pt p q f K Hnf). cbn [bindo].
  destruct (match h with HDomain [] => true | _ => false end) eqn:Eh; [discriminate|].
  assert (h <> HDomain []) as Hne by (intros ->; discriminate Eh).
  rewrite auth_scheme. cbn [bindo]. rewrite auth_url_hp. rewrite set_port_internal_frame. cbn [bindo].
  intros E. inversion E; subst u'. clear E. rewrite <- auth_url_hp. split; [exact Hne | reflexivity].
Qed.

(* the host-and-port state on: canonical host, RAW decimal port *)
Lemma phap_raw_port st sch ui h n X : st_is_file st = false -> host_ok st h -> h <> HDomain [] -> n <= 65535 -> tail_ok X ->
  nlen (auth_front sch ui h (norm_pt sch n)) <= U32_MAX_P ->
  parse_host_and_port hp hpo hd CUrlParser st (nlen sch) (((sch ++ [58]) ++ [47; 47]) ++ ui_text ui) (hd h ++ 58 :: decimal n ++ X)
  = POk (auth_front sch ui h (norm_pt sch n), nlen (((sch ++ [58]) ++ [47; 47]) ++ ui_text ui) + nlen (hd h),
         hi_of_host h, norm_pt sch n, X).
Proof.
  intros Hnf Kh Hne Hn HX Kb. pose proof (front_len hd sch ui h (norm_pt sch n)) as FL.
  rewrite phap_unfold. change (hd h ++ 58 :: decimal n ++ X) with (hd h ++ port_text (Some n) ++ X).
  rewrite (parse_host_canon hp hpo hd HRT st Hnf h (Some n) X Kh (fun E => False_ind _ (Hne E)) HX). cbn [pbind port_text app].
  unfold hap_tail. rewrite nlen_app. rewrite to_u32_ok by (clear - Kb FL; llia). cbn [pbind].
  set (chk := match h with HDomain [] => _ | _ => POk tt end).
  assert (chk = POk tt) as -> by (unfold chk; destruct h as [[|d0 d]|a|pcs]; try reflexivity; contradiction).
  cbn [pbind]. unfold inp_split_prefix_char at 1. rewrite inp_next_cons by reflexivity.
  replace (58 =? 58) with true by reflexivity.
  rewrite parse_port_decimal by (try assumption; apply tail_pe; exact HX). cbn [pbind].
  replace (nfirstn (nlen sch) ((((sch ++ [58]) ++ [47; 47]) ++ ui_text ui) ++ hd h)) with sch
    by (rewrite <- !app_assoc; symmetry; apply nfirstn_app_len).
  fold (norm_pt sch n). rewrite <- (front_eq hd sch ui h (norm_pt sch n)).
  destruct (norm_pt sch n) as [m|]; cbn [port_text]; [rewrite <- app_assoc | rewrite app_nil_r]; reflexivity.
Qed.

Lemma norm_pt_ok sch n : n <= 65535 -> port_ok (default_port sch) (norm_pt sch n).
Proof.
  intros Hn. unfold norm_pt. destruct (opt_eqb (Some n) (default_port sch)) eqn:Eo; [exact I|].
  split; [exact Hn | exact (opt_eqb_false _ _ Eo)].
Qed.

Lemma digits_above ds : forallb is_digit ds = true -> forallb above_space ds = true.
Proof. apply forallb_impl. intros c H. unfold is_digit, above_space, is_c0_or_space in *. lia. Qed.

Lemma splice_port_auth sch ui h pt p q f n :
  splice_port (auth_url sch ui h pt p q f) n
  = sch ++ 58 :: 47 :: 47 :: ui_text ui ++ hd h ++ 58 :: decimal n ++ pth_text p ++ qf_text q f.
Proof.
  unfold splice_port. rewrite auth_url_hp. rewrite hp_ser.
  change (host_end (hp_url (auth_A sch ui ++ hd h) pt (pth_text p) (nlen sch) (nlen sch + 3 + ui_ulen ui)
             (nlen sch + 3 + nlen (ui_text ui)) (hi_of_host h) q f)) with (nlen (auth_A sch ui ++ hd h)).
  change (path_start (hp_url (auth_A sch ui ++ hd h) pt (pth_text p) (nlen sch) (nlen sch + 3 + ui_ulen ui)
             (nlen sch + 3 + nlen (ui_text ui)) (hi_of_host h) q f)) with (nlen ((auth_A sch ui ++ hd h) ++ port_text pt)).
  rewrite nfirstn_app_len. rewrite (app_assoc (auth_A sch ui ++ hd h)). rewrite nskipn_app_len.
  unfold auth_A. rewrite <- !app_assoc. reflexivity.
Qed.

Theorem splice_port_auth_parse st sch ui h pt p q f n u' : auth_ok st sch ui h pt p q f -> auth_cls st p -> n <= 65535 ->
  set_port dbg (auth_url sch ui h pt p q f) (Some n) = Some (u', SOk) -> nlen (ser u') <= U32_MAX_P ->
  parse_url dbg hp hpo hd None None (splice_port (auth_url sch ui h pt p q f) n) = POk u'.
Proof.
  intros K Hc Hn E Hb. pose proof (auth_cls_nf st p Hc) as Hnf.
  destruct (set_port_auth_eq st sch ui h pt p q f n u' K Hnf E) as [Hne ->]. cbn [ser C02_Auth.auth_url] in Hb.
  pose proof (auth_ok_port hp hpo hd st sch ui h pt p q f (norm_pt sch n) K Hne (norm_pt_ok sch n Hn) Hb) as K'.
  rewrite splice_port_auth.
  destruct K as [Ksch Kst Kui Kh Kemp Kpt Kp Kq Kf Kb Kbq Kbf].
  set (back := pth_text p ++ qf_text q f).
  assert (tail_ok back) as Htail by (apply pth_tail; apply qf_qh_ok).
  assert (forallb above_space (58 :: decimal n ++ back) = true) as Hab.
  { cbn [forallb]. rewrite forallb_app. rewrite (digits_above _ (proj2 (port_rt n Hn))). exact (back_above st p q f Hc Kq Kf). }
  pose proof (front_len hd sch ui h (norm_pt sch n)) as FL. pose proof (ui_ulen_le ui) as UL.
  pose proof (ak_b _ _ _ _ _ _ _ _ _ _ _ K') as Kb'.
  apply (auth_parse st sch ui h (norm_pt sch n) p q f _ (hd h ++ 58 :: decimal n ++ back) back (qf_text q f) true K').
  - destruct Hc as [[-> _]|[-> _]]; [left; reflexivity | right; split; [reflexivity|]].
    apply (rest_head hp hpo hd); assumption.
  - intros E0. apply (f_equal (@length N)) in E0. rewrite !app_length in E0. cbn [length] in E0. lia.
  - rewrite (app_assoc (ui_text ui)). apply first_ok_rev_app; [discriminate | apply forallb_above; exact Hab].
  - apply parse_userinfo_canon; [exact Kui | | clear - Kb' FL UL; llia].
    apply (auth_scan hp hpo hd HRT st h (Some n) back Kh (fun E0 => False_ind _ (Hne E0)) Hn Htail).
  - apply phap_raw_port; assumption.
  - apply pps_cls; [exact Kh | exact Hc | apply qf_qh_ok].
  - apply pqf_canon; [reflexivity | exact Kq | exact Kf | exact (ak_bq _ _ _ _ _ _ _ _ _ _ _ K') | exact (ak_bf _ _ _ _ _ _ _ _ _ _ _ K')].
Qed.

(* WHOLE-URL agreement for set_port: any u16; no exclusion (a successful call means the URL has a non-empty host) *)
Theorem splice_agreement_set_port u n u' : Canon hp hpo hd u -> n <= 65535 ->
  set_port dbg u (Some n) = Some (u', SOk) -> nlen (ser u') <= U32_MAX_P ->
  parse_url dbg hp hpo hd None None (splice_port u n) = POk u'.
Proof.
  intros C Hn. destruct C as [sch P q f K | sch segs last q f K | sch ui h pt p q f K | sch ui h pt p q f K Kp].
  - unfold set_port, cannot_have_credentials_or_port, has_host. cbn [opaque_url hosti negb bindo]. discriminate.
  - unfold set_port, cannot_have_credentials_or_port, has_host. cbn [noauth_url hosti negb bindo]. discriminate.
  - apply (splice_port_auth_parse STNotSpecial); [exact K | left; split; [reflexivity | exact (ak_p _ _ _ _ _ _ _ _ _ _ _ K)] | exact Hn].
  - apply (splice_port_auth_parse STSpecialNotFile); [exact K | right; split; [reflexivity | exact Kp] | exact Hn].
Qed.

End SpliceAuth.
