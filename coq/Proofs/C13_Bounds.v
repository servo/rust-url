(* Proofs/C13_Bounds.v - the model's pure pieces equal the RFC 3492 transcription: thresholds, digits,
   adapt (fuel adequate, no division by zero), variable-length integers (fuel adequate, digit values
   below 36). *)
From RU Require Import Base.Prelude Base.U32_c13 Model.Punycode Spec.Rfc3492 Proofs.C13_Ascii Proofs.C13_Vli.

Lemma threshold_eq k bias : threshold k bias = s_threshold k bias.
Proof. reflexivity. Qed.

Lemma min_ge_eq n l : min_ge n l = s_min_ge n l.
Proof. reflexivity. Qed.

Lemma value_to_digit_char v : v < 36 -> value_to_digit v = Ok (s_digit_char v).
Proof.
  intros H. unfold value_to_digit. rewrite value_to_digit_table. unfold value_to_digit_spec, s_digit_char.
  destruct (v <? 26) eqn:E; [f_equal|replace (v <? 36) with true by lia; reflexivity].
Qed.

Lemma digit_u8_rfc c : digit_u8 c = s_digit_value c.
Proof. rewrite digit_u8_table. reflexivity. Qed.

Lemma adapt_loop_eq fuel d k :
  adapt_loop fuel d k = if 455 <? d then match fuel with O => None | Datatypes.S f => adapt_loop f (d / 35) (k + 36) end else Some (d, k).
Proof. destruct fuel; reflexivity. Qed.

Lemma s_adapt_loop_eq fuel d k :
  s_adapt_loop fuel d k = if 455 <? d then match fuel with O => (d, k) | Datatypes.S f => s_adapt_loop f (d / 35) (k + 36) end else (d, k).
Proof. destruct fuel; reflexivity. Qed.

Lemma adapt_loop_spec fuel : forall d k, d < 2 ^ N.of_nat fuel -> adapt_loop fuel d k = Some (s_adapt_loop fuel d k).
Proof.
  induction fuel as [|f IH]; intros d k H; rewrite adapt_loop_eq, s_adapt_loop_eq.
  - change (2 ^ N.of_nat 0) with 1 in H. replace (455 <? d) with false by lia. reflexivity.
  - destruct (455 <? d) eqn:E; [|reflexivity].
    apply IH. rewrite Nat2N.inj_succ, N.pow_succ_r' in H.
    pose proof (N.div_mod d 35 ltac:(lia)) as Hd. pose proof (N.mod_lt d 35 ltac:(lia)) as Hm.
    remember (d / 35) as q. remember (2 ^ N.of_nat f) as P. lia.
Qed.

Lemma adapt_ok d np first : np <> 0 -> adapt d np first = Ok (s_adapt d np first).
Proof.
  intros Hnp. unfold adapt, s_adapt.
  replace (np =? 0) with false by lia.
  change DAMP with s_damp.
  remember (d / (if first then s_damp else 2)) as d1.
  remember (d1 + d1 / np) as d2.
  rewrite adapt_loop_spec.
  - destruct (s_adapt_loop (N.to_nat (N.size d2)) d2 0) as [d3 k]. reflexivity.
  - rewrite N2Nat.id. apply N.size_gt.
Qed.

Lemma pow2_pos n : 0 < 2 ^ n.
Proof. apply N.neq_0_lt_0. apply N.pow_nonzero. lia. Qed.

Lemma enc_vli_S f q k bias :
  enc_vli (Datatypes.S f) q k bias =
  if q <? threshold k bias then rbind (value_to_digit q) (fun d => Ok [d])
  else rbind (value_to_digit (threshold k bias + (q - threshold k bias) mod (BASE - threshold k bias))) (fun d =>
       rbind (enc_vli f ((q - threshold k bias) / (BASE - threshold k bias)) (k + BASE) bias) (fun r => Ok (d :: r))).
Proof. reflexivity. Qed.

Lemma enc_vli_spec f : forall q k bias, q < 2 ^ N.of_nat f ->
  enc_vli (Datatypes.S f) q k bias = Ok (s_enc_vli (Datatypes.S f) q k bias).
Proof.
  induction f as [|f IH]; intros q k bias H; rewrite s_enc_vli_S, enc_vli_S, threshold_eq;
    pose proof (s_threshold_range k bias) as Ht; remember (s_threshold k bias) as t;
    (destruct (q <? t) eqn:E; [rewrite value_to_digit_char by lia; reflexivity|]).
  - change (2 ^ N.of_nat 0) with 1 in H. lia.
  - change BASE with 36. change s_base with 36. destruct (vli_digit t q Ht ltac:(lia)) as [Hr _].
    rewrite value_to_digit_char by lia. cbn [rbind].
    rewrite IH by (apply vli_fuel_step; assumption). reflexivity.
Qed.

Lemma enc_vli_fuel_ok q k bias : enc_vli (vli_fuel q) q k bias = Ok (s_enc_vli (s_vli_fuel q) q k bias).
Proof.
  unfold vli_fuel, s_vli_fuel. apply enc_vli_spec. rewrite N2Nat.id. apply N.size_gt.
Qed.
