(* Proofs/C14_Enc.v - C14, the pure functions `encode` and `decode` of Model/PercentEncoding.v: the table of "%XX"
   strings is the hex spelling (enc_byte_is_spec), encode is a per-byte map with ASCII output (encode_app,
   encode_ascii), decode undoes encode for every set containing '%' (decode_encode), and decode distributes over a
   split that cuts no escape (decode_split).  The iterator, Display and Cow views are in C14_Views.v. *)
From RU Require Import Base.Prelude Model.AsciiSet Gen.Tables Model.PercentEncoding.

Lemma enc_table_ok : all_below 256 (fun b => list_eqb (enc_byte b) (enc_byte_spec b)) = true.
Proof. vm_compute. reflexivity. Qed.

Theorem enc_byte_is_spec b : is_byte b -> enc_byte b = enc_byte_spec b.
Proof. intros Hb. apply list_eqb_spec. exact (all_below_spec 256 _ enc_table_ok b Hb). Qed.

Lemma table_ascii_ok : forallb (fun x => x <? 128) T_ENC_TABLE = true.
Proof. vm_compute. reflexivity. Qed.

(* what `encode S` does to one byte *)
Definition enc1 (S : aset) (b : N) : list N := if should_encode S b then enc_byte_spec b else [b].

Lemma encode_cons S b r : encode S (b :: r) = enc1 S b ++ encode S r.
Proof. reflexivity. Qed.

Theorem encode_app S x y : encode S (x ++ y) = encode S x ++ encode S y.
Proof. unfold encode. apply flat_map_app. Qed.

Lemma hex_upper_ascii d : d < 16 -> hex_upper d < 128 /\ hex_upper d <> 37.
Proof. unfold hex_upper. intros. destruct (d <? 10); lia. Qed.

Theorem encode_ascii S bs : bytes bs -> ascii (encode S bs).
Proof.
  induction bs as [|b r IH]; intros H.
  - constructor.
  - inversion H as [|? ? Hb Hr]; subst. rewrite encode_cons. apply ascii_app. split; [|apply IH; exact Hr].
    unfold enc1. unfold is_byte in Hb. destruct (should_encode S b) eqn:E.
    + unfold enc_byte_spec, ascii, is_ascii.
      pose proof (hex_upper_ascii (b / 16)). pose proof (hex_upper_ascii (b mod 16)).
      repeat constructor; lia.
    + (* a byte that is kept is below 128 *)
      unfold should_encode in E. destruct (128 <=? b) eqn:E1; [discriminate E|].
      repeat constructor. unfold is_ascii. lia.
Qed.

(* the three equations of decode that the proofs below rewrite with *)
Lemma decode_nil : decode [] = [].
Proof. reflexivity. Qed.
Lemma decode_other b r : b <> 37 -> decode (b :: r) = b :: decode r.
Proof. intros H. cbn [decode]. replace (b =? 37) with false by lia. reflexivity. Qed.
Lemma decode_pct3 h l r :
  decode (37 :: h :: l :: r) =
  match after_percent h l with Some v => v :: decode r | None => 37 :: decode (h :: l :: r) end.
Proof. reflexivity. Qed.

(* b is copied: it is not '%', or no escape that decodes starts here *)
Definition plain_head (b : N) (r : list N) : Prop :=
  b <> 37 \/ match r with h :: l :: _ => after_percent h l = None | _ => True end.

Lemma decode_plain b r : plain_head b r -> decode (b :: r) = b :: decode r.
Proof.
  intros [H|H]; [apply decode_other; exact H|]. cbn [decode]. destruct (b =? 37); [|reflexivity].
  destruct r as [|h [|l r]]; try reflexivity. rewrite H. reflexivity.
Qed.

(* the recursion of decode: an escape that decodes takes three bytes, every other byte one *)
Lemma decode_ind (P : list N -> Prop) :
  P [] ->
  (forall h l r v, after_percent h l = Some v -> P r -> P (37 :: h :: l :: r)) ->
  (forall b r, plain_head b r -> P r -> P (b :: r)) ->
  forall bs, P bs.
Proof.
  intros Hnil Hesc Hplain bs.
  assert (H : forall n bs, (length bs <= n)%nat -> P bs); [|exact (H (length bs) bs (le_n _))].
  clear bs. induction n as [|n IH]; intros bs Hlen.
  - destruct bs; [exact Hnil | cbn in Hlen; lia].
  - destruct bs as [|b r]; [exact Hnil|]. cbn [length] in Hlen.
    destruct (N.eq_dec b 37) as [->|Hne]; [|apply Hplain; [left; exact Hne | apply IH; lia]].
    destruct r as [|h [|l r]]; try (apply Hplain; [right; exact I | apply IH; lia]).
    destruct (after_percent h l) as [v|] eqn:E.
    + apply (Hesc h l r v E). apply IH. cbn [length] in Hlen. lia.
    + apply Hplain; [right; exact E | apply IH; lia].
Qed.

Lemma after_percent_hex b : is_byte b ->
  after_percent (hex_upper (b / 16)) (hex_upper (b mod 16)) = Some b.
Proof.
  unfold is_byte. intros Hb. unfold after_percent.
  rewrite !hex_val_upper by lia. f_equal. lia.
Qed.

Theorem decode_encode S bs :
  aset_contains S 37 = true -> bytes bs -> decode (encode S bs) = bs.
Proof.
  intros H37. induction bs as [|b r IH]; intros H.
  - reflexivity.
  - inversion H as [|? ? Hb Hr]; subst. rewrite encode_cons. unfold enc1.
    destruct (should_encode S b) eqn:E.
    + unfold enc_byte_spec. cbn [app]. rewrite decode_pct3.
      rewrite after_percent_hex by exact Hb. f_equal. apply IH. exact Hr.
    + cbn [app].
      destruct (N.eqb_spec b 37) as [->|Hne].
      * exfalso. unfold should_encode in E. cbn in E. rewrite H37 in E. discriminate.
      * rewrite decode_other by exact Hne. f_equal. apply IH. exact Hr.
Qed.

(* x has a '%' among its last two bytes *)
Fixpoint pct_tail (x : list N) : bool :=
  match x with
  | [] => false
  | a :: r => match r with
              | [] => a =? 37
              | b :: r' => match r' with
                           | [] => (a =? 37) || (b =? 37)
                           | _ :: _ => pct_tail r
                           end
              end
  end.

Lemma pct_tail_tl a r : pct_tail (a :: r) = false -> pct_tail r = false.
Proof.
  intros H. destruct r as [|b r1]; [reflexivity|].
  destruct r1 as [|c r2]; [cbn [pct_tail] in *; lia | exact H].
Qed.

Theorem decode_split x y : pct_tail x = false -> decode (x ++ y) = decode x ++ decode y.
Proof.
  induction x as [|h l r v E IH|b r Hb IH] using decode_ind; intros Ht; [reflexivity| |].
  - cbn [app]. rewrite !decode_pct3, E, IH by (do 3 apply pct_tail_tl in Ht; exact Ht). reflexivity.
  - (* a '%' that is copied has two bytes of x after it, by the hypothesis: y does not change its reading *)
    assert (Hb' : plain_head b (r ++ y)).
    { destruct Hb as [Hb|Hb]; [left; exact Hb|]. destruct (N.eq_dec b 37) as [->|Hne]; [|left; exact Hne].
      right. destruct r as [|h [|l r']]; [discriminate Ht | discriminate Ht | exact Hb]. }
    cbn [app]. rewrite (decode_plain b r Hb), (decode_plain b _ Hb'), IH by (apply pct_tail_tl in Ht; exact Ht).
    reflexivity.
Qed.
