(* Proofs/Idna_PunyRT.v - the Punycode round trip used by uts46.rs (PunyRT of Proofs/Idna_Hyp.v) is a THEOREM:
   for a label of at most 1000 scalar values, what the internal-caller encoder writes is read back
     - by the char decoder (CharInternal, the `xn--` sub-label of the mapped stream) as the label,
     - by the u8 decoder (U8Internal, an all-ASCII xn-- input label) as the label with its ASCII letters
       lower-cased (that instantiation yields char_ascii_lower_case() for the basic code units).
   Proof: the C13 development.  The walk w_outer succeeds below 3856 scalars (w_outer_small), the checked
   decoder b_dec_loop reads the encoder's output back (b_outer_rt, generic in the digit function), it commutes
   with a map on the basic code units that fixes the inserted code points (b_dec_loop_map), and the model's
   decoder follows a successful checked run for every instantiation (dec_loop_complete).
   Also: PunyRT_old of Proofs/Idna_Hyp.v (the u8 decoder required to return the label itself) is unsatisfiable:
   PunyRT_old_unsat. *)
From RU Require Import Base.Prelude Base.Utf8 Base.U32_c13 Gen.Tables Model.Punycode Model.Uts46 Spec.Rfc3492
  Proofs.C13_Ascii Proofs.C13_Bounds Proofs.C13_Enc Proofs.C13_Dec Proofs.C13_Known Proofs.C13_Vli Proofs.C13_Rt
  Proofs.C13_DecB Proofs.C13_RtB Proofs.C13_DecEnc Proofs.C13_Small Proofs.C13_Main
  Proofs.Idna_Sim Proofs.Idna_Api Proofs.Idna_Known Proofs.Idna_Hyp.

Lemma ulen_len (l : list N) : Uts46.len l = C13_Enc.len l.
Proof. reflexivity. Qed.

Lemma digit_char_char d : d < 36 -> digit_char (s_digit_char d) = Some d.
Proof. intros H. exact (proj2 (digit_of_value d _ (value_to_digit_char d H))). Qed.
Lemma inst_digit_char it d : d < 36 -> inst_digit it (s_digit_char d) = Some d.
Proof. intros H. destruct it; cbn [inst_digit]; [apply digit_u8_char|apply digit_u8_char|apply digit_char_char]; exact H. Qed.

(* the checked decoder commutes with a map that fixes every code point from n on *)
Lemma insert_at_map (f : N -> N) c : f c = c -> forall l i, s_insert_at i c (map f l) = map f (s_insert_at i c l).
Proof.
  intros Hc. induction l as [|x r IH]; intros i; cbn [s_insert_at map].
  - destruct (i =? 0); cbn [map]; rewrite Hc; reflexivity.
  - destruct (i =? 0); cbn [map]; [rewrite Hc; reflexivity|]. rewrite IH. reflexivity.
Qed.
Lemma len_map (f : N -> N) l : C13_Enc.len (map f l) = C13_Enc.len l.
Proof. unfold C13_Enc.len. rewrite map_length. reflexivity. Qed.

Lemma b_dec_loop_map (f : N -> N) n0 (Hf : forall c, n0 <= c -> f c = c) dig input :
  forall mid oldi w k i n bias out out', n0 <= n ->
  b_dec_loop dig input mid oldi w k i n bias out = Some out' ->
  b_dec_loop dig input mid oldi w k i n bias (map f out) = Some (map f out').
Proof.
  induction input as [|c rest IH]; intros mid oldi w k i n bias out out' Hn Hb.
  - cbn [b_dec_loop] in *. destruct mid; [discriminate|]. inversion Hb. reflexivity.
  - rewrite b_dec_loop_cons in *. destruct (dig c) as [digit|]; [|discriminate].
    destruct ((digit * w <=? U32_MAX) && (i + digit * w <=? U32_MAX)); [|discriminate].
    destruct (digit <? s_threshold k bias).
    + unfold b_dec_break in *. cbv zeta in *. rewrite len_map.
      destruct ((C13_Enc.len out + 1 <=? U32_MAX) && (n + (i + digit * w) / (C13_Enc.len out + 1) <=? U32_MAX)); [|discriminate].
      destruct (is_usvb (n + (i + digit * w) / (C13_Enc.len out + 1))); [|discriminate].
      assert (Hn' : n0 <= n + (i + digit * w) / (C13_Enc.len out + 1)) by (apply N.le_trans with n; [exact Hn|apply N.le_add_r]).
      rewrite insert_at_map by (apply Hf; exact Hn'). apply IH; [exact Hn'|exact Hb].
    + destruct (w * (s_base - s_threshold k bias) <=? U32_MAX); [|discriminate]. apply IH; [exact Hn|exact Hb].
Qed.

(* every instantiation of the decoder follows a successful checked run *)
Lemma decode_with_complete cfg it p base rest out' :
  s_split p = (base, rest) -> forallb (fun c => c <? 128) base = true -> C13_Enc.len base <= U32_MAX ->
  b_dec_loop (inst_digit it) rest false 0 1 s_base 0 s_initial_n s_initial_bias (map (inst_base_char it) base) = Some out' ->
  decode_with cfg it p = Ok out'.
Proof.
  intros Hs Ha Hl Hb. unfold decode_with, decoder_decode. rewrite split_eq, Hs.
  rewrite Ha. cbn [negb]. rewrite andb_false_r.
  assert (Hw : u32_wrap (N.of_nat (length base)) = C13_Enc.len base).
  { unfold u32_wrap. apply N.mod_small. unfold C13_Enc.len, U32_MOD, U32_MAX in *. lia. }
  rewrite Hw.
  destruct (dec_loop_complete cfg it base rest false 0 1 BASE 0 (C13_Enc.len base) INITIAL_N INITIAL_BIAS []
              (map (inst_base_char it) base) out' (eq_sym (len_map _ _)) (Rep_base_only it base 0) Hb) as [ins' [Hd HR]].
  rewrite Hd. exact (collect_Rep _ _ _ _ _ HR).
Qed.

Lemma inst_base_char_fix it c : 128 <= c -> inst_base_char it c = c.
Proof.
  intros H. destruct it; cbn [inst_base_char]; try reflexivity.
  unfold to_lower, is_upper. replace ((65 <=? c) && (c <=? 90)) with false by lia. reflexivity.
Qed.

(* decode_with it (encode s) = map (inst_base_char it) s whenever the walk succeeds *)
Lemma dec_enc_of_walk_it cfg it s p : usv_list s -> encode cfg s = Ok p ->
  w_outer (S (length s)) s (C13_Enc.len s) s_initial_n 0 (cnt (fun c => c <? 128) s) 0 = true ->
  decode_with cfg it p = Ok (map (inst_base_char it) s).
Proof.
  intros Hu He Hw.
  assert (Hub : Forall (fun c => is_usvb c = true) s).
  { unfold usv_list in Hu. eapply Forall_impl; [|exact Hu]. intros c Hc. apply is_usvb_spec. exact Hc. }
  assert (HL : C13_Enc.len s <= U32_MAX).
  { unfold encode in He. unfold C13_Enc.len. destruct (U32_MAX <? N.of_nat (length s)) eqn:EL; [discriminate|lia]. }
  destruct (encode_safe cfg s) as [E|E]; rewrite E in He; [discriminate|]. inversion He. subst p. clear He E.
  rewrite s_encode_unfold.
  remember (cnt (fun c => c <? 128) s) as b.
  remember (s_enc_outer (S (length s)) s (C13_Enc.len s) b 128 0 72 b) as D.
  assert (HD : nodelim D) by (subst D; apply outer_nodelim).
  pose proof (cnt_le (fun c => c <? 128) s) as Hcb. rewrite <- Heqb in Hcb.
  assert (Hmain0 : b_dec_loop (inst_digit it) D false 0 1 s_base 0 s_initial_n s_initial_bias (filter (fun c => c <? 128) s) = Some s).
  { subst D. apply (b_outer_rt (inst_digit it) (inst_digit_char it)); try assumption; try reflexivity; try lia.
    - rewrite Heqb. apply cnt_filter.
    - unfold s_initial_n. lia.
    - unfold C13_Enc.len in *. rewrite Nat2N.inj_succ. lia.
    - unfold s_initial_bias. lia. }
  pose proof (b_dec_loop_map (inst_base_char it) 128 (inst_base_char_fix it) (inst_digit it) D
                false 0 1 s_base 0 s_initial_n s_initial_bias _ _ ltac:(unfold s_initial_n; lia) Hmain0) as Hmain.
  assert (Hbl : C13_Enc.len (filter (fun c => c <? 128) s) <= U32_MAX) by (rewrite <- cnt_filter, <- Heqb; lia).
  destruct (0 <? b) eqn:Eb.
  - eapply decode_with_complete; [|apply forallb_filter|exact Hbl|exact Hmain].
    apply (split_encoded _ D); [|exact HD].
    intros Hnil. rewrite Heqb, cnt_filter, Hnil in Eb. cbn in Eb. lia.
  - assert (Hnil : filter (fun c => c <? 128) s = []).
    { destruct (filter (fun c => c <? 128) s) eqn:Ef; [reflexivity|]. rewrite Heqb, cnt_filter, Ef, len_cons in Eb. lia. }
    rewrite Hnil in *. cbn [app].
    apply (decode_with_complete cfg it D [] D); [|reflexivity|rewrite len_nil; unfold U32_MAX; lia|exact Hmain].
    unfold s_split. rewrite (rpos_none D HD). reflexivity.
Qed.

(* no exclusion up to 3855 scalars, every instantiation *)
Theorem dec_enc_small_it cfg it s p : usv_list s -> (length s <= 3855)%nat ->
  encode cfg s = Ok p -> decode_with cfg it p = Ok (map (inst_base_char it) s).
Proof.
  intros Hu Hl He. apply (dec_enc_of_walk_it cfg it s p Hu He).
  apply w_outer_small.
  - unfold C13_Enc.len. lia.
  - unfold usv_list in Hu. eapply Forall_impl; [|exact Hu]. exact usv_le.
  - unfold s_initial_n. lia.
  - reflexivity.
  - rewrite N.add_0_l. apply N.le_0_l.
Qed.

Lemma map_id_N (l : list N) : map (fun c => c) l = l.
Proof. induction l as [|x r IH]; [reflexivity|]. cbn [map]. rewrite IH. reflexivity. Qed.

Theorem punyrt_holds : forall cfg, PunyRT cfg.
Proof.
  intros cfg l p Hlen Hu He.
  assert (Hl : (length l <= 1000)%nat).
  { unfold PUNYCODE_ENCODE_MAX_INPUT_LENGTH in Hlen. change T_IDNA_ENCODE_MAX with 1000 in Hlen.
    unfold Uts46.len in Hlen. lia. }
  destruct (internal_main cfg l Hu Hl) as [E1 E2]. rewrite E1 in He.
  split.
  - rewrite (dec_enc_small_it cfg CharInternal l p Hu ltac:(lia) He). cbn [inst_base_char].
    rewrite map_id_N. reflexivity.
  - exact (dec_enc_small_it cfg U8Internal l p Hu ltac:(lia) He).
Qed.

(* the label-level corollary used by the IDNA proofs: no upper-case ASCII letter => both decoders return the label *)
Lemma map_to_lower_noupper l : existsb is_upper l = false -> map to_lower l = l.
Proof.
  induction l as [|c r IH]; intros H; [reflexivity|]. cbn [existsb] in H. apply orb_false_iff in H. destruct H as [H1 H2].
  cbn [map]. rewrite (IH H2). unfold to_lower. rewrite H1. reflexivity.
Qed.
Theorem punyrt_noupper cfg l p : Uts46.len l <= PUNYCODE_ENCODE_MAX_INPUT_LENGTH -> usv_list l ->
  existsb is_upper l = false -> encode_internal cfg l = Ok p ->
  decode_with cfg CharInternal p = Ok l /\ decode_with cfg U8Internal p = Ok l.
Proof.
  intros Hlen Hu Hup He. destruct (punyrt_holds cfg l p Hlen Hu He) as [H1 H2].
  rewrite (map_to_lower_noupper l Hup) in H2. split; assumption.
Qed.

(* PunyRT_old (Proofs/Idna_Hyp.v) is unsatisfiable: the u8 decoder lower-cases the basic code units *)
Definition W_PunyRT_old : list N := [65; 252].                     (* "A" U+00FC *)
Lemma w_punyrt_old cfg :
  encode_internal cfg W_PunyRT_old = Ok [65; 45; 101; 104; 97] /\           (* "A-eha" *)
  decode_with cfg U8Internal [65; 45; 101; 104; 97] = Ok [97; 252] /\       (* lower-cased basic code unit *)
  decode_with cfg CharInternal [65; 45; 101; 104; 97] = Ok [65; 252].
Proof. destruct cfg; vm_compute; repeat split; reflexivity. Qed.

Theorem PunyRT_old_unsat : forall cfg, ~ PunyRT_old cfg.
Proof.
  intros cfg H. destruct (w_punyrt_old cfg) as (He & Hd & _).
  assert (Hu : usv_list W_PunyRT_old) by (unfold W_PunyRT_old; repeat constructor; unfold is_usv; lia).
  assert (Hlen : Uts46.len W_PunyRT_old <= PUNYCODE_ENCODE_MAX_INPUT_LENGTH) by (vm_compute; discriminate).
  destruct (H W_PunyRT_old _ Hlen Hu eq_refl He) as [H1 _]. rewrite Hd in H1. discriminate.
Qed.

Example PunyRT_premises_hold :
  Uts46.len [98; 252; 99; 104; 101; 114] <= PUNYCODE_ENCODE_MAX_INPUT_LENGTH /\ usv_list [98; 252; 99; 104; 101; 114] /\
  encode_internal true [98; 252; 99; 104; 101; 114] = Ok [98; 99; 104; 101; 114; 45; 107; 118; 97].   (* bücher -> bcher-kva *)
Proof.
  split; [vm_compute; discriminate|]. split; [repeat constructor; unfold is_usv; lia|vm_compute; reflexivity].
Qed.
