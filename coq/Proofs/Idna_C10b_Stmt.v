(* Proofs/Idna_C10b_Stmt.v - statements of C10 idempotence / case-insensitivity and of the C12 round trip, for all
   inputs outside Known_C10_long (the class of the refutations in Proofs/Idna_C10b_Long.v), relative to adapter premises.
   Every adapter premise is a fact about idna_adapter alone that the `adapter` stream of harness/src/bin/idna.rs
   samples on the real crate.  Only definitions here; what is proved about them:
   - C10_case_statement2 is PROVED: c10_case3 (Proofs/Idna_C10d_Case.v), Properties C10_case3_rel.
   - C10_idem_statement2 is REFUTED for an abstract adapter: c10_idem2_refuted (Proofs/Idna_C10c_Refute.v, adapter ctxad;
     map_normalize there depends on the context an ASCII prefix gives).  With the premises AdapterUSV and MapPrefix added
     it holds: C10_idem_statement3, c10_idem3 (Proofs/Idna_C10c_Idem.v).
   - C12_statement2 is REFUTED by the same adapter: c12_statement2_refuted (Proofs/Idna_C12b_Stmt3.v); the round-trip
     statement that holds is C12_statement5 (Properties C12_5). *)
From RU Require Import Base.Prelude Base.Utf8 Base.U32_c13 Gen.Tables Model.Punycode Model.Uts46
  Proofs.Idna_Sim Proofs.Idna_Api Proofs.Idna_Known Proofs.Idna_Hyp Proofs.Idna_C10_Inner Proofs.Idna_C10b_Long.

(* normalize_validate is the identity on its own error-free output (sampled fact ok_nv_idem) *)
Definition NvIdem (A : adapter) : Prop := forall l,
  existsb is_fffd (normalize_validate A l) = false -> normalize_validate A (normalize_validate A l) = normalize_validate A l.
(* no ASCII character is a combining mark (sampled fact ok_ascii_nomark): a label of the mapped stream that starts
   with an ASCII character is not checked for a leading mark, its Punycode form is *)
Definition AsciiNoMark (A : adapter) : Prop := forall c, c < 128 -> is_mark A c = false.
(* the bidi rule accepts every pass-through label (sampled fact ok_pass_bidi: a-z are L, 0-9 are EN, '-' is ES):
   the labels of the pass-through prefix are never submitted to the bidi rule, their case variants are.
   Fail-fast mode only (bidi_label A true): to_ascii runs process with fail_fast = true *)
Definition PassBidi (A : adapter) : Prop := forall label he,
  bytes label -> is_passthrough_ascii_label label = true -> bidi_label A true label he = SOk (label, he).

Section Statements2.
Variable A : adapter.
Variable cfg : bool.

(* idempotence: everywhere outside Known_C10_long (F-C10-1) - in particular inside Known_C12 *)
Definition C10_idem_statement2 : Prop := AdapterOK A -> NvNoTrunc A -> NvIdem A -> AsciiNoMark A ->
  forall d deny hy dns b r, bytes d -> valid_deny deny ->
  to_ascii A cfg d deny hy dns = Ok (b, r) -> Known_C10_long r = false ->
  exists b', to_ascii A cfg r deny hy dns = Ok (b', r).

Definition C10_case_statement2 : Prop := AdapterOK A -> PassBidi A -> forall d d' deny hy dns b r,
  bytes d -> valid_deny deny -> ascii_case_variant d d' ->
  to_ascii A cfg d deny hy dns = Ok (b, r) -> exists b', to_ascii A cfg d' deny hy dns = Ok (b', r).

Definition C12_statement2 : Prop := AdapterOK A -> NvNoTrunc A -> NvIdem A -> AsciiNoMark A -> forall d deny hy b a,
  bytes d -> valid_deny deny -> Known_C12 A cfg d deny hy = false -> Known_C11 A cfg d deny hy = false ->
  to_ascii A cfg d deny hy DIgnore = Ok (b, a) -> Known_C10_long a = false ->
  let u := ui_text (to_unicode A cfg d deny hy) in
  (ui_text (to_unicode A cfg a deny hy) = u /\ ui_err (to_unicode A cfg a deny hy) = false) /\
  (exists b', to_ascii A cfg (utf8_encode u) deny hy DIgnore = Ok (b', a)) /\
  (ui_text (to_unicode A cfg (utf8_encode u) deny hy) = u /\ ui_err (to_unicode A cfg (utf8_encode u) deny hy) = false) /\
  (forall p, exists b', to_ascii A cfg (utf8_encode (ui_text (to_user_interface A cfg d deny hy p))) deny hy DIgnore = Ok (b', a)).
End Statements2.

(* the three premises NvNoTrunc, NvIdem, AsciiNoMark are satisfiable: the lower-casing adapter of
   Proofs/Idna_C10b_Long.v (PassBidi for an adapter: lowsan_pass_bidi, Proofs/Idna_C10d_PassBidi.v) *)
Example stmt2_premises_hold : NvNoTrunc lowad /\ NvIdem lowad /\ AsciiNoMark lowad.
Proof.
  split; [|split].
  - intros l t H. cbn [lowad lowad_with normalize_validate] in H. apply (f_equal (@List.length N)) in H.
    rewrite app_length in H. destruct t; [reflexivity|]. cbn [List.length] in H. lia.
  - intros l _. reflexivity.
  - intros c _. reflexivity.
Qed.
