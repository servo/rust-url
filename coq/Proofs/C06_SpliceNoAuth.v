(* Proofs/C06_SpliceNoAuth.v - WHOLE-URL parser agreement, part 10: set_path on the canonical records WITHOUT authority
   whose path starts with '/' and that carry no "/." marker (C02's Canon_noauth with a path not starting with "//").
   Argument: '/'-led, free of '?' / '#', its second character (TAB/LF/CR skipped) not a '/' (the parser would read an
   authority), not ending in C0 / space when nothing follows; result not starting with "//" (otherwise F-C02-8: the
   parser inserts the "/." marker, the setter does not).  Then the setter's record is canonical and Parser::parse_url on
   the old serialization with the RAW argument in the path position returns exactly it. *)
From RU Require Import Base.Prelude Base.Utf8 Base.Utf8Facts Model.AsciiSet Gen.Tables
  Model.PercentEncoding Model.HostT Model.UrlRecord Model.Parser Model.Setters Model.WF
  Proofs.ListN Proofs.C03_WF Proofs.C06_List Proofs.C06_WFI Proofs.C06_Suffix Proofs.C06_PathParser Proofs.C06_Path
  Proofs.C14_Set Proofs.C14_Enc Proofs.C14_Views Proofs.C02_Enc Proofs.C02_Parts
  Proofs.C02_Opaque Proofs.C02_Path Proofs.C02_PathL1 Proofs.C02_Reach Proofs.C16_RT Proofs.C02_AuthParts
  Proofs.C02_Auth Proofs.C02_AuthWf Proofs.C02_PathSp Proofs.C02_AuthSp Proofs.C02_AuthMain Proofs.C02_SetQF
  Proofs.C02_Canon Proofs.C02_SetPort
  Proofs.C06_Agree Proofs.C06_AgreeUrl Proofs.C06_Splice Proofs.C06_SpliceAuth Proofs.C06_SpliceCred Proofs.C06_SplicePath
  Proofs.C06_SpliceNone Proofs.C06_HostNone.
Open Scope N_scope.
Open Scope list_scope.

Section NoAuthSplice.
Variable dbg : bool.
Variable hp hpo : list N -> result host.
Variable hd : host -> list N.
Hypothesis HRT : HostRT hp hpo hd.

Notation Canon := (Canon hp hpo hd).
Notation loopU := (parse_path_loop dbg CUrlParser STNotSpecial).

(* for a non-special scheme the has_host flag is only passed through the path state *)
Definition chh {A} (hh : bool) (r : pres (list N * bool * A)) : pres (list N * bool * A) :=
  match r with POk (s, _, x) => POk (s, hh, x) | PErr e => PErr e | PPanic => PPanic end.

Lemma finish_hh ps ser ss ews hh :
  finish_segment dbg STNotSpecial ps ser ss ews hh
  = match finish_segment dbg STNotSpecial ps ser ss ews true with POk (s, _) => POk (s, hh) | PErr e => PErr e | PPanic => PPanic end.
Proof.
  unfold finish_segment. destruct (of_option (slice_o ser ss (if ews then nlen ser - 1 else nlen ser))) as [seg| |]; cbn [pbind]; try reflexivity.
  destruct (is_double_dot seg).
  - match goal with |- pbind ?c _ = _ => destruct c as [[]| |]; cbn [pbind]; try reflexivity end.
    match goal with |- pbind ?c _ = _ => destruct c as [s3| |]; cbn [pbind]; reflexivity end.
  - destruct (is_single_dot seg); reflexivity.
Qed.

Lemma finish_true ps ser ss ews s h : finish_segment dbg STNotSpecial ps ser ss ews true = POk (s, h) -> h = true.
Proof.
  unfold finish_segment. destruct (of_option (slice_o ser ss (if ews then nlen ser - 1 else nlen ser))) as [seg| |]; cbn [pbind]; try discriminate.
  destruct (is_double_dot seg).
  - match goal with |- pbind ?c _ = _ -> _ => destruct c as [[]| |]; cbn [pbind]; try discriminate end.
    match goal with |- pbind ?c _ = _ -> _ => destruct c as [s3| |]; cbn [pbind]; try discriminate end.
    intros H. inversion H. reflexivity.
  - destruct (is_single_dot seg); cbn [st_is_file andb]; intros H; inversion H; reflexivity.
Qed.

Lemma loop_hh ps l : forall ser ss pend hh, loopU ps l ser ss pend hh = chh hh (loopU ps l ser ss pend true).
Proof.
  induction l as [|c r IH]; intros ser ss pend hh; cbn [parse_path_loop].
  - rewrite (finish_hh ps _ ss false hh). destruct (finish_segment dbg STNotSpecial ps _ ss false true) as [[s2 h2]| |]; reflexivity.
  - destruct (is_tnl c); [apply IH|]. cbn [ctx_eqb negb st_is_special st_is_file andb orb].
    destruct ((c =? 47) || (c =? 92) && false).
    + rewrite (finish_hh ps _ ss true hh).
      destruct (finish_segment dbg STNotSpecial ps _ ss true true) as [[s2 h2]| |] eqn:Ef; cbn [pbind chh]; try reflexivity.
      apply finish_true in Ef. subst h2. apply IH.
    + destruct (((c =? 63) || (c =? 35)) && true).
      * rewrite (finish_hh ps _ ss false hh). destruct (finish_segment dbg STNotSpecial ps _ ss false true) as [[s2 h2]| |]; reflexivity.
      * apply IH.
Qed.

(* the path-start state on a '/'-led text is the path state behind the '/' (in every context but PathSegmentSetter,
   where '/' does not separate) *)
Lemma start_slash_ctx ctx ser R hh : ctx_eqb ctx CPathSegmentSetter = false ->
  parse_path_start dbg ctx STNotSpecial hh ser (47 :: R)
  = parse_path dbg ctx STNotSpecial hh (nlen ser) (ser ++ [47]) R.
Proof.
  intros Hctx. unfold parse_path_start. unfold inp_split_first. rewrite inp_next_cons by reflexivity.
  cbn [st_is_special]. change ((47 =? 63) || (47 =? 35)) with false. change (47 =? 47) with true. cbv iota.
  unfold parse_path. cbn [parse_path_loop]. change (is_tnl 47) with false. cbv iota.
  rewrite Hctx. cbn [negb st_is_special andb orb]. change (47 =? 47) with true. cbn [orb]. cbv iota.
  cbn [push_pending]. unfold finish_segment.
  rewrite slice_o_some by (rewrite nlen_app; change (nlen [47]) with 1; lia).
  cbn [of_option pbind]. rewrite nlen_app. change (nlen [47]) with 1.
  replace (nlen ser + 1 - 1 - nlen ser) with 0 by lia. change (nfirstn 0 (nskipn (nlen ser) (ser ++ [47]))) with (@nil N).
  cbn [is_double_dot is_single_dot st_is_file andb pbind]. rewrite nlen_app. reflexivity.
Qed.

Lemma start_slash ser R hh :
  parse_path_start dbg CUrlParser STNotSpecial hh ser (47 :: R)
  = parse_path dbg CUrlParser STNotSpecial hh (nlen ser) (ser ++ [47]) R.
Proof. apply start_slash_ctx. reflexivity. Qed.

Lemma start_slash_setter ser R hh :
  parse_path_start dbg CSetter STNotSpecial hh ser (47 :: R)
  = parse_path dbg CSetter STNotSpecial hh (nlen ser) (ser ++ [47]) R.
Proof. apply start_slash_ctx. reflexivity. Qed.

Lemma isc_app rest X : inp_starts_with_char 47 rest = false -> qh_tail X -> inp_starts_with_char 47 (rest ++ X) = false.
Proof.
  unfold inp_starts_with_char, inp_next. induction rest as [|c r IH]; intros H HX; cbn [app drop_while] in *.
  - destruct X as [|d X']; [reflexivity|]. cbn [qh_tail] in HX. cbn [drop_while].
    replace (is_tnl d) with false by (unfold is_tnl; lia). lia.
  - destruct (is_tnl c); [apply IH; assumption | exact H].
Qed.

(* what set_path returns on such a record: again a canonical record without authority and without marker, its path the
   text the parser's path-start state writes for the argument in front of any query / fragment rest *)
Lemma set_path_noauth_shape sch segs last q f rest u' :
  noauth_ok sch segs last q f -> marker_of (C02_Path.path_text segs last) = [] ->
  usv_list (47 :: rest) -> forallb no_qh (47 :: rest) = true -> inp_starts_with_char 47 rest = false ->
  set_path dbg (noauth_url sch (C02_Path.path_text segs last) q f) (47 :: rest) = Some u' -> nlen (ser u') <= U32_MAX_P ->
  C06_HostNone.path_starts_with_2slash u' = false ->
  exists segs' last' hh, noauth_ok sch segs' last' q f /\ u' = noauth_url sch (C02_Path.path_text segs' last') q f
    /\ forall Y, qh_tail Y ->
         parse_path_start dbg CUrlParser STNotSpecial true (sch ++ [58]) ((47 :: rest) ++ Y)
         = POk ((sch ++ [58]) ++ C02_Path.path_text segs' last', hh, Y).
Proof.
  intros K Hm Hx Hq Hn2 E Hb H2.
  set (T := C02_Path.path_text segs last) in *. set (x := 47 :: rest) in *. set (u := noauth_url sch T q f) in *.
  set (s0 := sch ++ [58]). set (X := qf_text q f).
  destruct (noauth_url_wf sch segs last q f K) as (W & _ & _). fold T u in W.
  assert (u = qf_url (s0 ++ T) (nlen sch) (nlen s0) (nlen s0) (nlen s0) HI_None None (nlen s0) q f) as Eu.
  { unfold u. rewrite noauth_url_qf. unfold noauth_pre. rewrite Hm. cbn [app]. rewrite N.add_0_r. reflexivity. }
  assert (nfirstn (scheme_end u) (ser u) = sch) as Esch.
  { unfold u. cbn [scheme_end ser noauth_url]. unfold noauth_ser, noauth_pre. rewrite <- !app_assoc. apply nfirstn_app_len. }
  assert (nfirstn (path_start u) (ser u) = s0) as Es0.
  { rewrite Eu. unfold qf_url. cbn [path_start ser]. rewrite <- app_assoc. apply nfirstn_app_len. }
  assert (byte_eqb (ser u) (scheme_end u + 1) 47 = true) as Hsl.
  { rewrite Eu. unfold qf_url. cbn [ser scheme_end]. rewrite <- app_assoc.
    rewrite (C02_AuthWf.byte_eqb_head s0 _ _ 47) by (unfold s0; rewrite nlen_app; reflexivity). reflexivity. }
  assert (auth_end_ok u) as Hae.
  { unfold auth_end_ok. rewrite Esch, (nk_ns _ _ _ _ _ K). intros Hsp. discriminate Hsp. }
  destruct (set_path_eval dbg u x u' W Hsl Hx Hae E) as (P & hh & rem & Eu' & [HP1 HP2] & Epp).
  rewrite Esch, (nk_ns _ _ _ _ _ K), Es0 in Epp.
  (* the parser's path-start state on the raw argument *)
  assert (forall Y, qh_tail Y -> parse_path_start dbg CUrlParser STNotSpecial true s0 (x ++ Y) = POk (s0 ++ P, hh, Y)) as G.
  { intros Y HY. rewrite (path_start_ctx dbg STNotSpecial true s0 x Y Hq HY) by reflexivity. rewrite Epp. reflexivity. }
  (* the path is canonical and starts with '/' *)
  destruct (pps_out dbg s0 x true (s0 ++ P) hh [] Hx) as (p' & Hp' & EP & _).
  { unfold x. cbn [pe_ok]. split; reflexivity. }
  { rewrite <- (app_nil_r x). apply G. exact I. }
  apply app_inv_head in EP.
  assert (exists r, P = 47 :: r) as [Pr EPr].
  { unfold x in Epp. rewrite start_slash_setter in Epp. unfold parse_path in Epp.
    assert (nlen (s0 ++ [47]) = nlen s0 + 1) as L1 by (rewrite nlen_app; reflexivity).
    assert (PInv (nlen s0) (nlen s0 + 1) (s0 ++ [47]) (s0 ++ [47])) as PI.
    { split; [rewrite <- L1; apply nfirstn_all; lia|]. rewrite nskipn_app_len. reflexivity. }
    destruct (pinv_loop dbg (nlen s0) (nlen s0 + 1) (s0 ++ [47]) ltac:(lia) ltac:(lia) L1 CSetter STNotSpecial rest eq_refl
                ltac:(intros Z; discriminate Z) _ _ _ _ _ _ _ Epp PI ltac:(lia)) as (y & Ey & [Y1 _]).
    { unfold usv_list in Hx. inversion Hx; assumption. }
    { constructor. }
    unfold file_path_fixup in Ey. cbn [st_is_file] in Ey. subst y.
    destruct HP2 as [->|[r ->]]; [|exists r; reflexivity].
    exfalso. rewrite app_nil_r in Y1. apply (f_equal nlen) in Y1. rewrite L1 in Y1.
    pose proof (nlen_nfirstn_le (nlen s0 + 1) s0). rewrite nfirstn_all in Y1 by lia. lia. }
  destruct p' as [[segs' last']|]; [|cbn [pth_text] in EP; rewrite EP in EPr; discriminate EPr].
  cbn [pth_text] in EP. destruct Hp' as [Hsegs' Hlast'].
  set (T' := C02_Path.path_text segs' last') in *.
  (* no marker in the result *)
  assert (u' = qf_url (s0 ++ P) (nlen sch) (nlen s0) (nlen s0) (nlen s0) HI_None None (nlen s0) q f) as Eu2.
  { rewrite Eu', Eu. apply with_path_qf. }
  assert (marker_of T' = []) as Hm'.
  { unfold marker_of. destruct (starts_with s_ss T') eqn:Ess; [|reflexivity]. exfalso.
    unfold C06_HostNone.path_starts_with_2slash in H2. rewrite Eu2 in H2. unfold qf_url in H2. cbn [path_start ser] in H2.
    rewrite <- app_assoc in H2. rewrite nskipn_app_len in H2. rewrite EP in H2.
    rewrite (starts_with_app_l s_ss T' (qf_text q f) Ess) in H2. discriminate H2. }
  assert (noauth_ok sch segs' last' q f) as K'.
  { destruct K as [Ksch Kns Ksegs Klast Kq Kf Kb1 Kbq Kbf].
    assert (nlen (noauth_pre sch T' ++ qf_text q f) <= U32_MAX_P) as Hb'.
    { rewrite Eu2 in Hb. unfold qf_url in Hb. cbn [ser] in Hb. unfold noauth_pre. rewrite Hm'. cbn [app]. rewrite <- EP. exact Hb. }
    destruct (qf_bounds _ _ _ _ Hb') as [B1 B2]. constructor; assumption. }
  assert (u' = noauth_url sch T' q f) as Eu3.
  { rewrite Eu2. rewrite noauth_url_qf. unfold noauth_pre. rewrite Hm'. cbn [app]. rewrite N.add_0_r. rewrite EP. reflexivity. }
  exists segs', last', hh. split; [exact K'|]. split; [exact Eu3|]. intros Y HY. fold T'. rewrite <- EP. apply G. exact HY.
Qed.

Lemma set_path_noauth_canon sch segs last q f rest u' :
  noauth_ok sch segs last q f -> marker_of (C02_Path.path_text segs last) = [] ->
  usv_list (47 :: rest) -> forallb no_qh (47 :: rest) = true -> inp_starts_with_char 47 rest = false ->
  set_path dbg (noauth_url sch (C02_Path.path_text segs last) q f) (47 :: rest) = Some u' -> nlen (ser u') <= U32_MAX_P ->
  C06_HostNone.path_starts_with_2slash u' = false ->
  Canon u'.
Proof.
  intros K Hm Hx Hq Hn2 E Hb H2.
  destruct (set_path_noauth_shape sch segs last q f rest u' K Hm Hx Hq Hn2 E Hb H2) as (segs' & last' & hh & K' & -> & _).
  exact (Canon_noauth hp hpo hd sch segs' last' q f K').
Qed.

Theorem splice_path_noauth_parse sch segs last q f rest u' :
  noauth_ok sch segs last q f -> marker_of (C02_Path.path_text segs last) = [] ->
  usv_list (47 :: rest) -> forallb no_qh (47 :: rest) = true -> inp_starts_with_char 47 rest = false ->
  (q = None -> f = None -> first_ok (rev (47 :: rest))) ->
  set_path dbg (noauth_url sch (C02_Path.path_text segs last) q f) (47 :: rest) = Some u' -> nlen (ser u') <= U32_MAX_P ->
  C06_HostNone.path_starts_with_2slash u' = false ->
  Canon u'
  /\ parse_url dbg hp hpo hd None None (splice_path (noauth_url sch (C02_Path.path_text segs last) q f) (47 :: rest)) = POk u'.
Proof.
  intros K Hm Hx Hq Hn2 Hl E Hb H2.
  destruct (set_path_noauth_shape sch segs last q f rest u' K Hm Hx Hq Hn2 E Hb H2) as (segs' & last' & hh & K' & Eu3 & G).
  split; [rewrite Eu3; exact (Canon_noauth hp hpo hd sch segs' last' q f K')|].
  set (T := C02_Path.path_text segs last) in *. set (T' := C02_Path.path_text segs' last') in *.
  set (x := 47 :: rest) in *. set (u := noauth_url sch T q f) in *. set (s0 := sch ++ [58]) in *. set (X := qf_text q f).
  assert (u = qf_url (s0 ++ T) (nlen sch) (nlen s0) (nlen s0) (nlen s0) HI_None None (nlen s0) q f) as Eu.
  { unfold u. rewrite noauth_url_qf. unfold noauth_pre. rewrite Hm. cbn [app]. rewrite N.add_0_r. reflexivity. }
  (* the parser on the spliced text *)
  rewrite Eu. rewrite splice_path_qf. fold X.
  destruct K as [Ksch Kns Ksegs Klast Kq Kf Kb1 Kbq Kbf].
  pose proof Ksch as Hsc. unfold scheme_canon in Hsc. apply andb_true_iff in Hsc. destruct Hsc as [Hhd Hall].
  assert (qh_tail X) as HX by (unfold X, qf_text; destruct q; destruct f; cbn; auto).
  assert (edge_ok (s0 ++ x ++ X)) as He.
  { split.
    - unfold s0. destruct sch as [|c0 r0]; [discriminate Hhd|]. cbn [app first_ok].
      unfold is_lower, is_c0_or_space in *. lia.
    - apply first_ok_rev_parts.
      + unfold s0. rewrite forallb_app, (scheme_above hp hpo sch Hall). reflexivity.
      + exact (qf_text_above q f Kq Kf).
      + intros EX. apply Hl; unfold X, qf_text in EX; destruct q; destruct f; cbn in EX; try discriminate; reflexivity.
      + unfold s0. destruct sch; discriminate. }
  unfold parse_url. rewrite trim_c0_id by exact He.
  unfold s0. rewrite <- !app_assoc. cbn [app]. rewrite parse_scheme_canon by exact Ksch.
  unfold parse_with_scheme. rewrite Kns.
  assert (nlen sch <= U32_MAX_P) as Hb0 by (rewrite nlen_app in Kb1; lia).
  rewrite to_u32_ok by exact Hb0. cbn [pbind]. unfold parse_non_special.
  assert (inp_split_prefix_str s_ss (x ++ X) = None) as Ess0.
  { unfold x, s_ss. cbn [app inp_split_prefix_str]. rewrite inp_next_cons by reflexivity. change (47 =? 47) with true. cbv iota.
    pose proof (isc_app rest X Hn2 HX) as Hi. unfold inp_starts_with_char in Hi.
    destruct (inp_next (rest ++ X)) as [[d r]|]; [rewrite Hi|]; reflexivity. }
  fold x. change (x ++ qf_text q f) with (x ++ X). rewrite Ess0.
  rewrite to_u32_ok by exact Kb1. cbn [pbind].
  unfold x at 1. cbn [app]. unfold inp_split_prefix_char. rewrite inp_next_cons by reflexivity. change (47 =? 47) with true. cbv iota.
  fold s0. rewrite <- (start_slash s0 (rest ++ X) false).
  assert (parse_path_start dbg CUrlParser STNotSpecial false s0 (47 :: rest ++ X) = POk (s0 ++ T', false, X)) as Epf.
  { rewrite start_slash. unfold parse_path. rewrite loop_hh. fold (parse_path dbg CUrlParser STNotSpecial true (nlen s0) (s0 ++ [47]) (rest ++ X)).
    rewrite <- start_slash. change (47 :: rest ++ X) with (x ++ X). rewrite (G X HX). reflexivity. }
  rewrite Epf. cbn [pbind].
  assert (parse_query_and_fragment None CUrlParser STNotSpecial (nlen sch) (noauth_pre sch T') X
          = POk (noauth_pre sch T' ++ X, qf_qs (nlen (noauth_pre sch T')) q, qf_fs (nlen (noauth_pre sch T')) q f)) as Hpqf.
  { destruct K' as [_ _ _ _ _ _ _ Kbq' Kbf']. apply pqf_canon; try assumption. reflexivity. }
  assert (starts_with [47] T' = true) as HT1 by reflexivity.
  pose proof (wqf_noauth hp hpo None sch T' X _ _ _ HT1 Hpqf) as Hw. cbv zeta in Hw.
  fold s0 in Hw. rewrite Hw. rewrite Eu3. unfold noauth_url, noauth_ser. reflexivity.
Qed.

(* the same for a canonical record given by its observable shape: no authority, not cannot-be-a-base, no marker *)
Theorem splice_agreement_set_path_noauth u rest u' : Canon u -> has_authority_b u = false ->
  byte_eqb (ser u) (scheme_end u + 1) 47 = true -> path_start u = scheme_end u + 1 ->
  usv_list (47 :: rest) -> forallb no_qh (47 :: rest) = true -> inp_starts_with_char 47 rest = false ->
  (query_start u = None -> fragment_start u = None -> first_ok (rev (47 :: rest))) ->
  set_path dbg u (47 :: rest) = Some u' -> nlen (ser u') <= U32_MAX_P ->
  C06_HostNone.path_starts_with_2slash u' = false ->
  Canon u' /\ parse_url dbg hp hpo hd None None (splice_path u (47 :: rest)) = POk u'.
Proof.
  intros C Hna Hsl Hps Hx Hq Hn2 Hl E Hb H2.
  destruct C as [sch P q f K | sch segs last q f K | sch ui h pt p q f K | sch ui h pt p q f K Kp].
  - exfalso. pose proof (opaque_url_cbb sch P q f K) as Hc.
    rewrite (C06_Steps.cannot_be_a_base_eval _ (opaque_url_wf sch P q f K)) in Hc. rewrite Hsl in Hc. discriminate Hc.
  - apply (splice_path_noauth_parse sch segs last q f rest u' K); try assumption.
    + cbn [path_start scheme_end noauth_url] in Hps. rewrite nlen_app in Hps. change (nlen [58]) with 1 in Hps.
      unfold marker_of in *. destruct (starts_with s_ss (C02_Path.path_text segs last)); [|reflexivity].
      change (nlen [47; 46]) with 2 in Hps. lia.
    + intros -> ->. apply Hl; reflexivity.
  - exfalso. assert (has_authority_b (auth_url hd sch ui h pt p q f) = true) as Hha.
    { unfold has_authority_b. cbn [ser scheme_end C02_Auth.auth_url]. rewrite (auth_ser_shape hd). rewrite nskipn_app_len. reflexivity. }
    congruence.
  - exfalso. assert (has_authority_b (auth_url hd sch ui h pt p q f) = true) as Hha.
    { unfold has_authority_b. cbn [ser scheme_end C02_Auth.auth_url]. rewrite (auth_ser_shape hd). rewrite nskipn_app_len. reflexivity. }
    congruence.
Qed.

Theorem set_path_noauth_Canon u rest u' : Canon u -> has_authority_b u = false ->
  byte_eqb (ser u) (scheme_end u + 1) 47 = true -> path_start u = scheme_end u + 1 ->
  usv_list (47 :: rest) -> forallb no_qh (47 :: rest) = true -> inp_starts_with_char 47 rest = false ->
  set_path dbg u (47 :: rest) = Some u' -> nlen (ser u') <= U32_MAX_P ->
  C06_HostNone.path_starts_with_2slash u' = false -> Canon u'.
Proof.
  intros C Hna Hsl Hps Hx Hq Hn2 E Hb H2.
  destruct C as [sch P q f K | sch segs last q f K | sch ui h pt p q f K | sch ui h pt p q f K Kp].
  - exfalso. pose proof (opaque_url_cbb sch P q f K) as Hc.
    rewrite (C06_Steps.cannot_be_a_base_eval _ (opaque_url_wf sch P q f K)) in Hc. rewrite Hsl in Hc. discriminate Hc.
  - apply (set_path_noauth_canon sch segs last q f rest u' K); try assumption.
    cbn [path_start scheme_end noauth_url] in Hps. rewrite nlen_app in Hps. change (nlen [58]) with 1 in Hps.
    unfold marker_of in *. destruct (starts_with s_ss (C02_Path.path_text segs last)); [|reflexivity].
    change (nlen [47; 46]) with 2 in Hps. lia.
  - exfalso. assert (has_authority_b (auth_url hd sch ui h pt p q f) = true) as Hha.
    { unfold has_authority_b. cbn [ser scheme_end C02_Auth.auth_url]. rewrite (auth_ser_shape hd). rewrite nskipn_app_len. reflexivity. }
    congruence.
  - exfalso. assert (has_authority_b (auth_url hd sch ui h pt p q f) = true) as Hha.
    { unfold has_authority_b. cbn [ser scheme_end C02_Auth.auth_url]. rewrite (auth_ser_shape hd). rewrite nskipn_app_len. reflexivity. }
    congruence.
Qed.
End NoAuthSplice.

(* non-vacuity: "a:/p" with set_path("/x y/../z") *)
Definition na_u : url := noauth_url [97] (C02_Path.path_text [] [112]) None None.

Lemma na_u_ok : noauth_ok [97] [] [112] None None.
Proof.
  constructor; try exact I; try (vm_compute; reflexivity).
  vm_compute. discriminate.
Qed.

Lemma splice_noauth_inhabited hp hpo hd :
  Canon hp hpo hd na_u /\ ser na_u = [97; 58; 47; 112] /\ has_authority_b na_u = false
  /\ byte_eqb (ser na_u) (scheme_end na_u + 1) 47 = true /\ path_start na_u = scheme_end na_u + 1
  /\ usv_list [47; 120; 32; 121; 47; 46; 46; 47; 122] /\ forallb no_qh [47; 120; 32; 121; 47; 46; 46; 47; 122] = true
  /\ inp_starts_with_char 47 [120; 32; 121; 47; 46; 46; 47; 122] = false
  /\ first_ok (rev [47; 120; 32; 121; 47; 46; 46; 47; 122])
  /\ (exists u', set_path true na_u [47; 120; 32; 121; 47; 46; 46; 47; 122] = Some u' /\ ser u' = [97; 58; 47; 122]
                 /\ C06_HostNone.path_starts_with_2slash u' = false)
  /\ splice_path na_u [47; 120; 32; 121; 47; 46; 46; 47; 122] = [97; 58; 47; 120; 32; 121; 47; 46; 46; 47; 122].
Proof.
  split; [exact (Canon_noauth hp hpo hd _ _ _ _ _ na_u_ok)|].
  split; [vm_compute; reflexivity|]. split; [vm_compute; reflexivity|]. split; [vm_compute; reflexivity|].
  split; [vm_compute; reflexivity|]. split; [repeat constructor; unfold is_usv; lia|]. split; [vm_compute; reflexivity|].
  split; [vm_compute; reflexivity|]. split; [vm_compute; reflexivity|].
  split; [eexists; split; [vm_compute; reflexivity | split; vm_compute; reflexivity]|]. vm_compute; reflexivity.
Qed.
