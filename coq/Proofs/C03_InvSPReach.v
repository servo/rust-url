(* Proofs/C03_InvSPReach.v - "a special scheme implies that the byte at path_start is '/'" for the histories:
   inv03s u = inv03 u /\ SP u (Proofs/C03_InvSP.v, C03_InvSPSteps.v) holds of every record of reach03j (parse of any text,
   joins against any reached record, the two file-path constructors, all 19 mutators outside known03k) and of C02's
   quantifier Reachable3 (parse / join of &str texts, all 19 mutators outside known_step2, query_pairs_mut sessions).
   Consequence: PathSegmentsMut::new's debug assertion (C04_SetPath.psm_assert_fails) never fails on such a record. *)
From RU Require Import Proofs.C15_Ser.
From RU Require Import Base.Prelude Model.HostT Model.UrlRecord Model.WF Model.QueryPairs Proofs.C02_SetHostCanon
  Proofs.C02_Reach3 Proofs.C06_Tail Proofs.C05_Enc Proofs.C05_Parser Proofs.C03_ReachParts Proofs.C03_Reachability
  Proofs.C03_AuthEnd Proofs.C05_Alphabet Proofs.C05_HostText Proofs.C03_ReachJoin Proofs.C03_ReachFull Proofs.C20_RT
  Proofs.C04_SetPath Proofs.C03_InvSP Proofs.C03_InvSPSteps.
Open Scope N_scope.
Open Scope list_scope.

(* the path of a file record starts with '/' *)
Lemma file_rec_sp P : file_path_ok P -> SP (file_rec P).
Proof. intros [(r & ->) _] _. reflexivity. Qed.

Section Inv.
Variable dbg : bool.
Variable hp hpo : list N -> result host.
Variable hd : host -> list N.
Hypothesis HW : HostWf hp hpo hd.
Hypothesis HNE : NoEmpty hp.
Hypothesis HIPW : IpWf hd.

Theorem reach03j_inv03s u : reach03j dbg hp hpo hd u -> inv03s u.
Proof using HW HNE HIPW.
  revert u. apply reach03j_closed.
  - intros ovr base input u. exact (parse_url_inv03s dbg hp hpo hd HW ovr base input u).
  - intros Q HQ. split; [exact (file_rec_inv03 Q (file_rec_wfh Q HQ)) | exact (file_rec_sp Q HQ)].
  - exact (inv03s_step dbg hp hpo hd HW HNE HIPW).
Qed.
End Inv.

(* query_pairs_mut sessions: the path is not touched *)
Lemma qpm_sp dbg u ops u' : wf_b u = true -> Forall ok_or_space (ser u) -> Forall op_ok ops ->
  query_pairs_session dbg u ops = Some u' -> SP u -> SP u'.
Proof.
  intros W Hoks Hops H S. destruct (qpm_keeps dbg u ops u' W Hoks Hops H) as (_ & W' & Es & _ & Ep & _).
  intros Hs'. rewrite (spb_same u u' W W' Es) in Hs'. exact (path_keep_sl u u' W W' Ep (S Hs')).
Qed.

Theorem reach3_inv03s dbg hp hpo hd : HostWf hp hpo hd -> host_nonempty hp hpo -> IpWf hd -> HostOK hp hpo hd -> IpOKv hd ->
  forall u, Reachable3 dbg hp hpo hd u -> inv03s u /\ Forall ok_or_space (ser u).
Proof.
  intros HW HNE HIPW HOK HIP u R. destruct (reach3_inv_all dbg hp hpo hd HW HNE HIPW HOK HIP u R) as [Iu Ou].
  split; [split; [exact Iu|] | exact Ou]. clear Iu Ou. revert u R.
  apply (reach3_closed dbg hp hpo hd HW HNE HIPW HOK HIP SP).
  - intros ovr base input u Hb Hp. exact (proj2 (parse_url_inv03s dbg hp hpo hd HW ovr base input u Hb Hp)).
  - intros u o u' Iu Su Ha G H. exact (proj2 (inv03s_step dbg hp hpo hd HW (proj1 HNE) HIPW u o u' (conj Iu Su) Ha G H)).
  - exact (qpm_sp dbg).
Qed.

(* PathSegmentsMut::new's assertion *)
Lemma sp_psm_assert u : SP u -> psm_assert_fails u = false.
Proof.
  intros S. unfold psm_assert_fails, special_path_ok. fold (spb u).
  destruct (spb u) eqn:Es; cbn [negb orb]; [|apply andb_false_r].
  assert (byte_eqb (ser u) (path_start u) 47 = true) as E by (apply byte_eqb_true_iff; exact (S Es)).
  rewrite E. apply andb_false_r.
Qed.

Theorem reach3_psm_assert dbg hp hpo hd : HostWf hp hpo hd -> host_nonempty hp hpo -> IpWf hd -> HostOK hp hpo hd -> IpOKv hd ->
  forall u, Reachable3 dbg hp hpo hd u -> SP u /\ psm_assert_fails u = false.
Proof.
  intros HW HNE HIPW HOK HIP u R.
  pose proof (proj2 (proj1 (reach3_inv03s dbg hp hpo hd HW HNE HIPW HOK HIP u R))) as S.
  split; [exact S | exact (sp_psm_assert u S)].
Qed.
