(* Proofs/C08_AbsNonfile.v - the 'absolute wins' law for every URL parsed without a base whose scheme is
   not "file": its own serialization resolves to itself against ANY base (also cannot-be-a-base ones).
   C02's classes (i)-(iv) give the canonical form of the record; the text of each form has abs_shape
   (C08_Absolute.v), so the base is never consulted, and C02's L3 finishes. *)
From RU Require Import Base.Prelude Base.Utf8 Base.Utf8Facts Model.AsciiSet Gen.Tables Model.PercentEncoding
  Model.HostT Model.UrlRecord Model.Parser Model.Setters Model.WF Model.KnownC08
  Proofs.ListN Proofs.C14_Enc Proofs.C02_Enc Proofs.C02_Parts Proofs.C02_Opaque Proofs.C02_Path Proofs.C02_PathL1
  Proofs.C02_Reach Proofs.C02_AuthParts Proofs.C02_Auth Proofs.C02_AuthWf Proofs.C02_PathSp Proofs.C02_AuthSp
  Proofs.C02_AuthMain Proofs.C08_Input Proofs.C08_Absolute.

(* the class of a parse result without base, non-file scheme: C02's four canonical forms *)
Inductive nonfile_form (hp hpo : list N -> result host) (hd : host -> list N) (u : url) : Prop :=
| NF_opaque sch P q f : opaque_ok sch P q f -> u = opaque_url sch P q f -> nonfile_form hp hpo hd u
| NF_noauth sch segs last q f : noauth_ok sch segs last q f -> u = noauth_url sch (path_text segs last) q f ->
    nonfile_form hp hpo hd u
| NF_auth sch ui h pt p q f : auth_ok hp hpo hd STNotSpecial sch ui h pt p q f -> u = auth_url hd sch ui h pt p q f ->
    nonfile_form hp hpo hd u
| NF_special sch ui h pt p q f : auth_ok hp hpo hd STSpecialNotFile sch ui h pt p q f -> pth_ok_sp p ->
    u = auth_url hd sch ui h pt p q f -> nonfile_form hp hpo hd u.

Section AbsNonfile.
Variables (dbg : bool) (hp hpo : list N -> result host) (hd : host -> list N).
Hypothesis HRT : HostRT hp hpo hd.

Theorem nonfile_parse_form input u : host_above hp hpo hd -> usv_list input -> nonfile_input input = true ->
  parse_url dbg hp hpo hd None None input = POk u -> nonfile_form hp hpo hd u.
Proof.
  intros HAb Hu Hc Hp. unfold nonfile_input in Hc.
  destruct (parse_scheme CUrlParser (input_new_trim_c0 input)) as [[sch rem]|] eqn:Hs; [|discriminate].
  destruct (scheme_type_of sch) eqn:Hst; [discriminate| |].
  - destruct (parse_special_out dbg hp hpo hd HRT HAb input sch rem u Hu Hs Hst Hp) as (ui & h & pt & p & q & f & K & Kp & E).
    exact (NF_special hp hpo hd u sch ui h pt p q f K Kp E).
  - destruct (inp_split_prefix_char 47 rem) as [rem'|] eqn:E47.
    + destruct (inp_split_prefix_str s_ss rem) as [rem''|] eqn:Ess.
      * destruct (parse_auth_out dbg hp hpo hd HRT HAb None input sch rem rem'' u Hu Hs Hst Ess Hp) as (ui & h & pt & p & q & f & K & E).
        exact (NF_auth hp hpo hd u sch ui h pt p q f K E).
      * destruct (parse_noauth_out dbg hp hpo hd None input sch rem rem' u Hu Hs Hst Ess E47 Hp) as (segs & last & q & f & K & E).
        exact (NF_noauth hp hpo hd u sch segs last q f K E).
    + destruct (parse_opaque_out dbg hp hpo hd None input sch rem u Hu Hs Hst E47 Hp) as (P & q & f & K & E).
      exact (NF_opaque hp hpo hd u sch P q f K E).
Qed.

(* every canonical form resolves to itself against any base *)
Theorem absolute_form b u : nonfile_form hp hpo hd u ->
  parse_url dbg hp hpo hd None (Some b) (utf8_lossy (ser u)) = POk u.
Proof.
  intros [sch P q f K ->|sch segs last q f K ->|sch ui h pt p q f K ->|sch ui h pt p q f K Kp ->].
  - cbn [ser opaque_url]. rewrite C02_Opaque.utf8_lossy_ascii by exact (opaque_ser_ascii sch P q f K).
    exact (absolute_opaque dbg hp hpo hd None b sch P q f K).
  - destruct (noauth_url_wf sch segs last q f K) as (_ & _ & A).
    cbn [ser noauth_url] in *. rewrite C02_Opaque.utf8_lossy_ascii by exact A.
    exact (absolute_noauth dbg hp hpo hd None b sch segs last q f K).
  - pose proof (okc_ascii _ (auth_ser_okc hp hpo hd HRT _ _ _ _ _ _ _ _ K)) as A.
    cbn [ser auth_url]. rewrite C02_Opaque.utf8_lossy_ascii by exact A.
    rewrite (abs_dispatch dbg hp hpo hd None).
    + exact (reparse_auth_form dbg hp hpo hd HRT None sch ui h pt p q f K).
    + rewrite auth_ser_shape. apply abs_shape_slashes_any. exact (ak_sch _ _ _ _ _ _ _ _ _ _ _ K).
  - pose proof (okc_ascii _ (auth_ser_okc hp hpo hd HRT _ _ _ _ _ _ _ _ K)) as A.
    cbn [ser auth_url]. rewrite C02_Opaque.utf8_lossy_ascii by exact A.
    rewrite (abs_dispatch dbg hp hpo hd None).
    + exact (reparse_special_form dbg hp hpo hd HRT sch ui h pt p q f K Kp).
    + rewrite auth_ser_shape. apply abs_shape_slashes_any. exact (ak_sch _ _ _ _ _ _ _ _ _ _ _ K).
Qed.

Theorem absolute_nonfile b input u : host_above hp hpo hd -> usv_list input -> nonfile_input input = true ->
  parse_url dbg hp hpo hd None None input = POk u ->
  parse_url dbg hp hpo hd None (Some b) (utf8_lossy (ser u)) = POk u.
Proof. intros HAb Hu Hc Hp. apply absolute_form. exact (nonfile_parse_form input u HAb Hu Hc Hp). Qed.

End AbsNonfile.

Theorem absolute_nonfile_HostOK dbg hp hpo hd b input u :
  HostOK hp hpo hd -> host_above hp hpo hd -> usv_list input -> nonfile_input input = true ->
  parse_url dbg hp hpo hd None None input = POk u ->
  parse_url dbg hp hpo hd None (Some b) (utf8_lossy (ser u)) = POk u.
Proof. intros HOK. exact (absolute_nonfile dbg hp hpo hd (HostOK_RT _ _ _ HOK) b input u). Qed.

(* non-vacuity (host functions ex_hp / ex_hd of C02_AuthMain.v) *)
From Coq Require Import String.
Open Scope string_scope.

(* u parsed from a non-file input, b any parse result: u's serialization joined to b is u *)
Definition ex_abs (us bs : string) : bool :=
  match ex_parse us, ex_parse bs with
  | POk u, POk b =>
      nonfile_input (B us)
      && match parse_url true ex_hp ex_hp ex_hd None (Some b) (utf8_lossy (ser u)) with POk v => url_eqb v u | _ => false end
  | _, _ => false
  end.

Lemma abs_nonfile_inhabited :
  ex_abs "HTTP:\\u@h.x:80\a\..\b?q'#f" "http://other/dir/file?x#y" = true
  /\ ex_abs "http:h.x" "http://other/dir/file" = true
  /\ ex_abs "a://u:p@h.x:81/a/../b?q#f" "file:///c:/x" = true
  /\ ex_abs "a:/..//x" "about:blank" = true
  /\ ex_abs "mailto:x@y?subject=%41" "ws://h/" = true.
Proof. vm_compute. repeat split. Qed.
