(* Proofs/C07_SpecPath.v - the specification side of the pathname setter: what the basic URL parser of
   Spec/Whatwg.v computes when it is run WITH a state override from the path start state on any text,
   for a URL whose scheme is not "file": with an override '?' and '#' are ordinary code points of the
   path state (they come out percent-encoded), so the path state runs to the end of the text.  From there
   the closed form of the Standard's pathname setter (spec_pathname_closed). *)
From Coq Require Import Lia ZArith.
From RU Require Import Base.Prelude Base.Utf8 Spec.Whatwg Spec.WhatwgFuel Proofs.C01_EqRun Proofs.C01_EqPathSpec
  Proofs.C07_SpecRun.

(* a separator of the path state: '/', and '\' for a special URL *)
Definition sepc (sp : bool) (c : N) : bool := (c =? 47) || (sp && (c =? 92)).

(* the path state with a state override on the text t, from the list of segments P and the buffer B *)
Fixpoint spathO (sp : bool) (t : list N) (P : list (list N)) (B : list N) : list (list N) :=
  match t with
  | [] => fin P B false
  | c :: r => if sepc sp c then spathO sp r (fin P B true) []
              else spathO sp r P (B ++ utf8_percent_encode_cp in_path_set c)
  end.

Lemma is_special_set_path u p : is_special (set_path u p) = is_special u.
Proof. reflexivity. Qed.

Section PathOv.
Variable hp : bool -> list N -> option spec_host.
Variable input : list N.
Variable ov : pstate.

Notation runO := (run hp input None (Some ov)).
Notation stepO := (step hp input None (Some ov)).

(* path state *)
Theorem run_path_ov : forall t pre fuel B a b pw u P,
  input = pre ++ t -> su_path u = SPList P -> list_eqb (su_scheme u) str_file = false -> (length t < fuel)%nat ->
  runO fuel (at_pos StPath pre B a b pw u) = BDone (set_path u (SPList (spathO (is_special u) t P B))).
Proof.
  induction t as [|c r IH]; intros pre fuel B a b pw u P Hin HP Hf Hfuel;
    (destruct fuel as [|fuel]; [cbn [length] in Hfuel; lia|]); cbn [run].
  - rewrite (step_at hp input ov _ _ _ _ _ _ _ _ Hin). cbn zeta. cbn [hd_error]. unfold st_path.
    cbn [is_eof orb cis andb m_url m_buf at_pos]. rewrite ?andb_false_r. cbn [orb negb andb].
    pose proof (path_seg_update u P B false HP Hf) as Eseg. cbn [orb negb andb] in Eseg. rewrite Eseg.
    unfold set_buf, set_url. cbn [m_state m_ptr m_buf m_at m_br m_pw m_url at_pos].
    rewrite (len_split hp input pre [] Hin). cbn [length].
    replace (Z.of_nat (length pre) + Z.of_nat 0 <=? Z.of_nat (length pre))%Z with true by lia.
    reflexivity.
  - rewrite (step_at hp input ov _ _ _ _ _ _ _ _ Hin). cbn zeta. cbn [hd_error]. unfold st_path.
    cbn [is_eof orb cis andb m_url m_buf at_pos has_ov opt_is_some negb spathO].
    fold (sepc (is_special u) c).
    destruct (sepc (is_special u) c) eqn:Esep; cbn [orb andb negb].
    + pose proof (path_seg_update u P B true HP Hf) as Eseg. cbn [orb negb andb] in Eseg. rewrite Eseg.
      assert ((c =? 63) = false /\ (c =? 35) = false) as [E63 E35].
      { unfold sepc in Esep. destruct (is_special u); cbn [andb] in Esep; lia. }
      rewrite E63, E35.
      unfold set_buf, set_url. cbn [m_state m_ptr m_buf m_at m_br m_pw m_url at_pos].
      rewrite (len_split hp input pre (c :: r) Hin). cbn [length].
      replace (Z.of_nat (length pre) + Z.of_nat (S (length r)) <=? Z.of_nat (length pre))%Z with false by lia.
      rewrite (inc_at hp StPath pre c).
      rewrite (IH (pre ++ [c]) fuel [] a b pw (set_path u (SPList (fin P B true))) (fin P B true)
                  (snoc_split input pre c r Hin) eq_refl Hf) by (cbn [length] in Hfuel; lia).
      rewrite is_special_set_path. destruct u; reflexivity.
    + unfold set_buf. cbn [m_state m_ptr m_buf m_at m_br m_pw m_url at_pos].
      rewrite (len_split hp input pre (c :: r) Hin). cbn [length].
      replace (Z.of_nat (length pre) + Z.of_nat (S (length r)) <=? Z.of_nat (length pre))%Z with false by lia.
      rewrite (inc_at hp StPath pre c).
      exact (IH (pre ++ [c]) fuel _ a b pw u P (snoc_split input pre c r Hin) HP Hf ltac:(cbn [length] in Hfuel; lia)).
Qed.

(* a run that decreases the pointer is followed by another run on the same code point *)
Lemma inc_dec st pre buf a b pw u :
  inc_ptr (dec_ptr (mkM st (Z.of_nat (length pre)) buf a b pw u)) = at_pos st pre buf a b pw u.
Proof.
  unfold inc_ptr, dec_ptr, set_ptr, at_pos. cbn [m_ptr m_state m_buf m_at m_br m_pw m_url].
  replace (Z.of_nat (length pre) - 1 + 1)%Z with (Z.of_nat (length pre)) by lia. reflexivity.
Qed.

(* path start state *)
(* the path the path start state and the path state leave, from an empty list of segments *)
Definition pstartO (u : spec_url) (t : list N) : spec_url :=
  if is_special u then
    match t with
    | c :: r => if sepc true c then set_path u (SPList (spathO true r [] []))
                else set_path u (SPList (spathO true t [] []))
    | [] => set_path u (SPList [[]])
    end
  else
    match t with
    | c :: r => if c =? 47 then set_path u (SPList (spathO false r [] []))
                else set_path u (SPList (spathO false t [] []))
    | [] => if host_is_null (su_host u) then set_path u (SPList [[]]) else u
    end.

Theorem run_path_start_ov : forall t fuel a b pw u,
  input = t -> su_path u = SPList [] -> list_eqb (su_scheme u) str_file = false -> (length t + 1 < fuel)%nat ->
  runO fuel (at_pos StPathStart [] [] a b pw u) = BDone (pstartO u t).
Proof.
  intros t fuel a b pw u Hin HP Hf Hfuel.
  assert (input = [] ++ t) as Hin' by exact Hin.
  destruct fuel as [|fuel]; [lia|]. cbn [run].
  rewrite (step_at hp input ov _ _ _ _ _ _ _ _ Hin'). cbn zeta. unfold st_path_start, pstartO.
  cbn [m_url at_pos has_ov opt_is_some negb andb].
  destruct (is_special u) eqn:Esp.
  - destruct t as [|c r]; cbn [hd_error cis negb andb].
    + (* EOF: the pointer goes back, the path state runs on EOF *)
      unfold goto. cbn [m_state m_ptr m_buf m_at m_br m_pw m_url at_pos length].
      unfold dec_ptr at 1. unfold set_ptr at 1. cbn [m_ptr].
      rewrite (len_split hp input [] [] Hin'). cbn [length].
      replace (Z.of_nat 0 + Z.of_nat 0 <=? Z.of_nat 0 - 1)%Z with false by lia.
      rewrite (inc_dec StPath [] [] a b pw u : inc_ptr (dec_ptr (mkM StPath (Z.of_nat 0) [] a b pw u)) = _).
      rewrite (run_path_ov [] [] fuel [] a b pw u [] Hin' HP Hf) by (cbn [length] in *; lia).
      rewrite Esp. reflexivity.
    + change ((c =? 47) || true && (c =? 92)) with (sepc true c).
      assert (negb (c =? 47) && negb (c =? 92) = negb (sepc true c)) as -> by (unfold sepc; cbn [andb]; lia).
      destruct (sepc true c) eqn:Esep; cbn [negb].
      * unfold goto. cbn [m_state m_ptr m_buf m_at m_br m_pw m_url at_pos length].
        rewrite (len_split hp input [] (c :: r) Hin'). cbn [length].
        replace (Z.of_nat 0 + Z.of_nat (S (length r)) <=? Z.of_nat 0)%Z with false by lia.
        change (Z.of_nat 0) with (Z.of_nat (@length N [])).
        rewrite (inc_at hp StPath [] c).
        rewrite (run_path_ov r ([] ++ [c]) fuel [] a b pw u [] (snoc_split input [] c r Hin') HP Hf)
          by (cbn [length] in *; lia).
        rewrite Esp. reflexivity.
      * unfold goto. cbn [m_state m_ptr m_buf m_at m_br m_pw m_url at_pos length].
        unfold dec_ptr at 1. unfold set_ptr at 1. cbn [m_ptr].
        rewrite (len_split hp input [] (c :: r) Hin'). cbn [length].
        replace (Z.of_nat 0 + Z.of_nat (S (length r)) <=? Z.of_nat 0 - 1)%Z with false by lia.
        rewrite (inc_dec StPath [] [] a b pw u : inc_ptr (dec_ptr (mkM StPath (Z.of_nat 0) [] a b pw u)) = _).
        rewrite (run_path_ov (c :: r) [] fuel [] a b pw u [] Hin' HP Hf) by (cbn [length] in *; lia).
        rewrite Esp. reflexivity.
  - destruct t as [|c r]; cbn [hd_error cis is_eof negb andb].
    + rewrite (len_split hp input [] [] Hin').
      destruct (host_is_null (su_host u)).
      * unfold set_url, path_append. rewrite HP. cbn [m_state m_ptr m_buf m_at m_br m_pw m_url at_pos length app].
        replace (Z.of_nat 0 + Z.of_nat 0 <=? Z.of_nat 0)%Z with true by lia. reflexivity.
      * cbn [m_state m_ptr m_buf m_at m_br m_pw m_url at_pos length].
        replace (Z.of_nat 0 + Z.of_nat 0 <=? Z.of_nat 0)%Z with true by lia. reflexivity.
    + destruct (c =? 47) eqn:E47; cbn [negb].
      * unfold goto. cbn [m_state m_ptr m_buf m_at m_br m_pw m_url at_pos length].
        rewrite (len_split hp input [] (c :: r) Hin'). cbn [length].
        replace (Z.of_nat 0 + Z.of_nat (S (length r)) <=? Z.of_nat 0)%Z with false by lia.
        change (Z.of_nat 0) with (Z.of_nat (@length N [])).
        rewrite (inc_at hp StPath [] c).
        rewrite (run_path_ov r ([] ++ [c]) fuel [] a b pw u [] (snoc_split input [] c r Hin') HP Hf)
          by (cbn [length] in *; lia).
        rewrite Esp. reflexivity.
      * unfold goto. cbn [m_state m_ptr m_buf m_at m_br m_pw m_url at_pos length].
        unfold dec_ptr at 1. unfold set_ptr at 1. cbn [m_ptr].
        rewrite (len_split hp input [] (c :: r) Hin'). cbn [length].
        replace (Z.of_nat 0 + Z.of_nat (S (length r)) <=? Z.of_nat 0 - 1)%Z with false by lia.
        rewrite (inc_dec StPath [] [] a b pw u : inc_ptr (dec_ptr (mkM StPath (Z.of_nat 0) [] a b pw u)) = _).
        rewrite (run_path_ov (c :: r) [] fuel [] a b pw u [] Hin' HP Hf) by (cbn [length] in *; lia).
        rewrite Esp. reflexivity.
Qed.

End PathOv.

(* the pathname setter of the Standard in closed form *)
Lemma fuel_enough1 (t : list N) : (length t + 1 < spec_fuel t)%nat.
Proof. unfold spec_fuel. lia. Qed.

Theorem spec_pathname_closed shp su v : has_opaque_path su = false -> list_eqb (su_scheme su) str_file = false ->
  spec_set shp SetPathname su v = SetTo (pstartO (set_path su (SPList [])) (notnl v)).
Proof.
  intros Ho Hf. cbn [spec_set]. rewrite Ho.
  unfold spec_basic_url_parse_override. fold (notnl v).
  change (mkM StPathStart 0%Z [] false false false (set_path su (SPList [])))
    with (at_pos StPathStart [] [] false false false (set_path su (SPList []))).
  rewrite (run_path_start_ov shp (notnl v) StPathStart (notnl v) _ false false false (set_path su (SPList []))
             eq_refl eq_refl Hf (fuel_enough1 _)).
  reflexivity.
Qed.

(* an opaque path: the assignment is ignored *)
Theorem spec_pathname_opaque shp su v : has_opaque_path su = true -> spec_set shp SetPathname su v = SetTo su.
Proof. intros Ho. cbn [spec_set]. rewrite Ho. reflexivity. Qed.
