(* Proofs/C01_EqCover.v - coverage of the proved classes relative to Known_C01: Known_C01 (Model/KnownC01.v)
   consists of the file scheme (class 1) and of the EXACT exclusions of the class recognisers, computed on the
   raw text (classes 2-4), so that "outside Known_C01" implies "in the proved class":
     - no base: EVERY input with known_c01_v1 None input = 0 is in in_proved_class3 None;
     - a good_base pair of the right shape: every reference with known_c01_v1 (Some b) input = 0 is in
       in_proved_class3 (Some sb).
   Mechanism (Proofs/C01_KnownExact.v): the cuts of the authority Known_C01 makes are the cuts of the
   Standard's states; its raw path simulation (one drive-letter flag per segment) implies the test on the
   Standard's own state; the flags of the base path are read off the serialized path of the model record,
   which is the serialization of the Standard's segment list. *)
From Coq Require Import ZifyBool ZifyN.
From RU Require Import Base.Prelude Model.HostT Model.UrlRecord Model.Parser Model.KnownC01 Spec.Whatwg
  Proofs.C02_Path Proofs.C03_WF Proofs.C01_EqRun Proofs.C01_EqApi Proofs.C01_EqRef Proofs.C01_EqDots
  Proofs.C01_EqClasses Proofs.C01_EqClasses2 Proofs.C01_EqRel Proofs.C01_EqRelArms Proofs.C01_EqSpSpec
  Proofs.C01_KnownExact Proofs.C01_EqSpKnown Proofs.C01_EqAbs Proofs.C01_EqSpBase Proofs.C01_EqSpBare
  Proofs.C01_EqAsm Proofs.C01_EqShape.

Lemma orb_intro_r a b : b = true -> a || b = true.
Proof. intros ->. apply orb_true_r. Qed.

Lemma k_bad_ok x : k_bad x = 0 -> x = true.
Proof. destruct x; [reflexivity | discriminate]. Qed.

(* no base: everything outside Known_C01 is in a proved class *)
Theorem nonspecial_nobase_covers input sch R :
  spec_scheme (spec_clean input) = Some (sch, R) -> is_special_scheme sch = false -> known_c01_v1 None input = 0 ->
  in_class_opaque input || in_class_pathonly input || in_class_authority input = true.
Proof.
  intros Hs Hnsp Hk. destruct (known_exact_nobase input sch R Hs Hk) as (_ & Hd). rewrite Hnsp in Hd.
  destruct R as [|c1 R1].
  { assert (in_class_opaque input = true) as -> by (unfold in_class_opaque; rewrite Hs, Hnsp; reflexivity). reflexivity. }
  destruct (c1 =? 47) eqn:E1.
  2:{ assert (in_class_opaque input = true) as ->
        by (unfold in_class_opaque; rewrite Hs, Hnsp; cbn [starts_with_cp]; rewrite E1; reflexivity). reflexivity. }
  cbn [k_absolute] in Hd. rewrite E1 in Hd. apply N.eqb_eq in E1. subst c1.
  destruct R1 as [|c2 T].
  { apply orb_true_iff. left. apply orb_intro_r. unfold in_class_pathonly. rewrite Hs, Hnsp. reflexivity. }
  destruct (c2 =? 47) eqn:E2.
  - apply N.eqb_eq in E2. subst c2. apply orb_intro_r.
    unfold in_class_authority. rewrite Hs, Hnsp. cbn [negb andb N.eqb Pos.eqb].
    exact (k_auth_class_ok T Hd).
  - apply orb_true_iff. left. apply orb_intro_r. unfold in_class_pathonly. rewrite Hs, Hnsp.
    cbn [starts_with_cp negb andb]. rewrite E2. cbn [negb andb].
    exact (k_path_ok_spath0 _ (k_bad_ok _ Hd)).
Qed.

Theorem nobase_covers input : known_c01_v1 None input = 0 -> in_proved_class3 None input = true.
Proof.
  intros Hk. cbn [in_proved_class3]. unfold in_proved_nobase3.
  destruct (spec_scheme (spec_clean input)) as [[sch R]|] eqn:Hs.
  - destruct (is_special_scheme sch) eqn:Hsp.
    + rewrite (special_class_covers_known input sch R Hs Hsp Hk). rewrite orb_true_r. reflexivity.
    + rewrite (nonspecial_nobase_covers input sch R Hs Hsp Hk). reflexivity.
  - apply orb_intro_r. unfold in_class_noscheme_nobase. rewrite Hs. reflexivity.
Qed.

(* the base record *)
Section BaseCover.
Variable dbg : bool.
Variable shs : spec_host -> list N.

Lemma related_path b sb : related dbg shs b sb -> path b = Some (serialize_path sb).
Proof.
  intros R. pose proof (rel_wf _ _ _ _ R) as W. pose proof (rel_api _ _ _ _ R) as A.
  rewrite (api_of_model_eval dbg b W) in A. unfold spec_api_list in A.
  injection A as _ _ _ _ _ _ _ A8 _ _. rewrite (path_eval b W). f_equal. exact A8.
Qed.

Lemma related_cbb b sb : related dbg shs b sb -> k_cbb b = has_opaque_path sb.
Proof. intros R. unfold k_cbb. rewrite (rel_cbb _ _ _ _ R). destruct (has_opaque_path sb); reflexivity. Qed.

(* the drive-letter flags Known_C01 reads off the serialized path of the model record describe the
   Standard's segment list (without its last segment) *)
Lemma base_stack_wrel b sb : related dbg shs b sb -> has_opaque_path sb = false ->
  forallb no_slash (Whatwg.path_segments sb) = true ->
  wrel (removelast (Whatwg.path_segments sb)) (k_base_stack b).
Proof.
  intros R Hop Hns. unfold k_base_stack. rewrite (related_path b sb R).
  assert (serialize_path sb = flat_map (fun s => 47 :: s) (Whatwg.path_segments sb)) as EP.
  { unfold serialize_path, Whatwg.path_segments. unfold has_opaque_path in Hop. destruct (su_path sb); [discriminate Hop | reflexivity]. }
  rewrite EP. destruct (Whatwg.path_segments sb) as [|s P]; [exact wrel_nil|].
  cbn [flat_map app]. replace (47 =? 47) with true by reflexivity.
  cbn [forallb] in Hns. apply andb_true_iff in Hns. destruct Hns as [Hs HP].
  rewrite (k_split_flat P [] s Hs HP). cbn [app].
  apply wrel_removelast. apply wrel_map.
Qed.

(* any base (file bases included): bare references *)
(* empty, "?query", "#fragment": the classes of C01_EqRef / C01_EqEmpty hold for every kind of base *)
Theorem bare_ref_covers sb input :
  spec_scheme (spec_clean input) = None -> k_bare_ref (spec_clean input) = true ->
  in_proved_class3 (Some sb) input = true.
Proof.
  intros Hs Hb. cbn [in_proved_class3].
  destruct (starts_with_cp 35 (spec_clean input)) eqn:E35.
  { assert (in_class_fragment_only input = true) as -> by exact E35. reflexivity. }
  destruct (has_opaque_path sb) eqn:Hop.
  { assert (in_class_opaque_base_fail sb input = true) as ->
      by (unfold in_class_opaque_base_fail; rewrite Hop, Hs, E35; reflexivity).
    rewrite !orb_true_r. reflexivity. }
  destruct (spec_clean input) as [|c t] eqn:Ecl.
  { assert (in_class_empty_ref sb input = true) as -> by (unfold in_class_empty_ref; rewrite Hop, Ecl; reflexivity).
    rewrite !orb_true_r. reflexivity. }
  cbn [k_bare_ref] in Hb. cbn [starts_with_cp] in E35. unfold k_qh in Hb. rewrite E35, orb_false_r in Hb.
  assert (in_class_query_only sb input = true) as ->
    by (unfold in_class_query_only; rewrite Hop, Ecl; cbn [negb andb starts_with_cp]; exact Hb).
  rewrite !orb_true_r. reflexivity.
Qed.

(* a non-special related base, scheme-less reference *)
Theorem nonspecial_base_covers b sb input :
  good_base dbg shs b sb -> is_special_scheme (su_scheme sb) = false ->
  spec_scheme (spec_clean input) = None -> known_c01_v1 (Some b) input = 0 ->
  in_proved_class3 (Some sb) input = true.
Proof.
  intros [R Hok] Hnsp Hs Hk.
  destruct (known_exact_base_noscheme b input Hs Hk) as [Hbare|(_ & Hd)]; [exact (bare_ref_covers sb input Hs Hbare)|].
  rewrite (rel_sch _ _ _ _ R), Hnsp in Hd. unfold k_relative in Hd. rewrite (related_cbb b sb R) in Hd.
  cbn [in_proved_class3].
  destruct (has_opaque_path sb) eqn:Hop.
  { (* opaque-path base: '#' or failure *)
    destruct (starts_with_cp 35 (spec_clean input)) eqn:E35.
    - assert (in_class_fragment_only input = true) as -> by exact E35. reflexivity.
    - assert (in_class_opaque_base_fail sb input = true) as ->
        by (unfold in_class_opaque_base_fail; rewrite Hop, Hs, E35; reflexivity).
      rewrite !orb_true_r. reflexivity. }
  destruct (spec_clean input) as [|c t] eqn:Ecl.
  { assert (in_class_empty_ref sb input = true) as -> by (unfold in_class_empty_ref; rewrite Hop, Ecl; reflexivity).
    rewrite !orb_true_r. reflexivity. }
  destruct (c =? 35) eqn:E35.
  { assert (in_class_fragment_only input = true) as -> by (unfold in_class_fragment_only; rewrite Ecl; exact E35). reflexivity. }
  destruct (c =? 63) eqn:E63.
  { assert (in_class_query_only sb input = true) as ->
      by (unfold in_class_query_only; rewrite Hop, Ecl; cbn [negb andb starts_with_cp]; exact E63).
    rewrite !orb_true_r. reflexivity. }
  unfold k_qh in Hd. rewrite E35, E63 in Hd. cbn [orb] in Hd.
  apply orb_true_iff. left. apply orb_true_iff. left. apply orb_intro_r. unfold in_class_relative.
  destruct (c =? 47) eqn:E47.
  - apply N.eqb_eq in E47. subst c.
    destruct (starts_with_cp 47 t) eqn:E2.
    + (* "//": scheme-relative *)
      destruct t as [|c2 T]; [discriminate E2|]. cbn [starts_with_cp] in E2. rewrite E2 in Hd. apply N.eqb_eq in E2. subst c2.
      apply orb_intro_r. unfold in_class_rel_authority. rewrite Hop, Hnsp, Ecl. cbn [negb andb N.eqb Pos.eqb].
      exact (k_auth_class_ok T Hd).
    + (* "/x": path-absolute *)
      apply orb_true_iff. left. apply orb_true_iff. left.
      unfold in_class_rel_abs. rewrite Hop, Hnsp, Ecl, E2. cbn [negb andb N.eqb Pos.eqb].
      destruct t as [|c2 T]; [reflexivity|]. cbn [starts_with_cp] in E2. rewrite E2 in Hd.
      exact (k_path_ok_spath0 _ (k_bad_ok _ Hd)).
  - (* path-relative *)
    apply orb_true_iff. left. apply orb_intro_r.
    unfold in_class_rel_path. rewrite Hop, Hnsp, Ecl, Hs, E47, E63, E35. cbn [negb andb].
    apply andb_true_iff in Hok. destruct Hok as [_ HnsP].
    change (@nil N) with (upe in_path_set []).
    apply (k_path_ok_spath (c :: t) _ (k_base_stack b) []); [exact (base_stack_wrel b sb R Hop HnsP)|].
    exact (k_bad_ok _ Hd).
Qed.

(* a special non-file base with a host, scheme-less reference *)
Theorem special_base_covers b sb input :
  good_base dbg shs b sb -> sp_base_ok sb = true ->
  spec_scheme (spec_clean input) = None -> known_c01_v1 (Some b) input = 0 ->
  in_proved_class3 (Some sb) input = true.
Proof.
  intros [R Hok] Hsb Hs Hk.
  destruct (sp_base_ok_facts sb Hsb) as (Hop & Hsp & Hnf & h & Eh).
  destruct (known_exact_base_noscheme b input Hs Hk) as [Hbare|(_ & Hd)]; [exact (bare_ref_covers sb input Hs Hbare)|].
  rewrite (rel_sch _ _ _ _ R), Hsp in Hd. unfold k_relative in Hd. rewrite (related_cbb b sb R), Hop in Hd.
  cbn [in_proved_class3].
  destruct (spec_clean input) as [|c t] eqn:Ecl.
  { assert (in_class_empty_ref sb input = true) as -> by (unfold in_class_empty_ref; rewrite Hop, Ecl; reflexivity).
    rewrite !orb_true_r. reflexivity. }
  destruct (c =? 35) eqn:E35.
  { assert (in_class_fragment_only input = true) as -> by (unfold in_class_fragment_only; rewrite Ecl; exact E35). reflexivity. }
  destruct (c =? 63) eqn:E63.
  { assert (in_class_query_only sb input = true) as ->
      by (unfold in_class_query_only; rewrite Hop, Ecl; cbn [negb andb starts_with_cp]; exact E63).
    rewrite !orb_true_r. reflexivity. }
  unfold k_qh in Hd. rewrite E35, E63 in Hd. cbn [orb] in Hd. change (k_sl c) with (is_sl c) in Hd.
  apply orb_intro_r. unfold in_class_relative_s.
  pose proof Hok as Hok0. apply andb_true_iff in Hok0. destruct Hok0 as [Hcan HnsP].
  destruct (is_sl c) eqn:Esl.
  - destruct t as [|c2 T].
    + apply orb_true_iff. left. apply orb_true_iff. left. apply orb_true_iff. left. apply orb_true_iff. left. apply orb_true_iff. left.
      unfold in_class_rel_abs_s. rewrite Hsb, Ecl, Esl. reflexivity.
    + change (k_sl c2) with (is_sl c2) in Hd. destruct (is_sl c2) eqn:Esl2.
      * apply orb_true_iff. left. apply orb_true_iff. left. apply orb_true_iff. left. apply orb_intro_r. rewrite Hcan. cbn [andb].
        unfold in_class_rel_authority_s. rewrite Hop, Hsp, Hnf, Ecl, Esl, Esl2. cbn [negb andb].
        exact (k_special_class_ok T Hd).
      * apply orb_true_iff. left. apply orb_true_iff. left. apply orb_true_iff. left. apply orb_true_iff. left. apply orb_true_iff. left.
        unfold in_class_rel_abs_s. rewrite Hsb, Ecl, Esl, Esl2. cbn [negb andb].
        exact (k_path_ok_spath_s0 _ (k_bad_ok _ Hd)).
  - apply orb_true_iff. left. apply orb_true_iff. left. apply orb_true_iff. left. apply orb_true_iff. left. apply orb_intro_r.
    unfold in_class_rel_path_s. rewrite Hsb, Ecl, Hs, Esl, E63, E35. cbn [negb andb].
    change (@nil N) with (upe in_path_set []).
    apply (k_path_ok_spath_s (c :: t) _ (k_base_stack b) []); [exact (base_stack_wrel b sb R Hop HnsP)|].
    exact (k_bad_ok _ Hd).
Qed.

(* any base, a reference with a scheme of its own that makes the base irrelevant *)
(* (the model record and the Standard's record must carry the same scheme - part of `related`) *)
Theorem own_scheme_base_covers sb b input sch R :
  b_scheme b = su_scheme sb ->
  spec_scheme (spec_clean input) = Some (sch, R) ->
  is_special_scheme sch = false \/ list_eqb (su_scheme sb) sch = false ->
  known_c01_v1 (Some b) input = 0 -> in_proved_class3 (Some sb) input = true.
Proof.
  intros Hsch Hs Hign Hk.
  assert (is_special_scheme sch && list_eqb sch (b_scheme b) && negb (k_two_sl R) = false) as Hi.
  { destruct Hign as [H|H]; [rewrite H; reflexivity|]. rewrite Hsch, list_eqb_sym', H. rewrite andb_false_r. reflexivity. }
  pose proof (known_exact_absolute b input sch R Hs Hi Hk) as Hk0.
  destruct (known_exact_nobase input sch R Hs Hk0) as (Hnf & _).
  cbn [in_proved_class3]. apply orb_true_iff. left. apply orb_intro_r. unfold in_class_abs_base. rewrite Hs.
  apply andb_true_iff. split; [|exact (nobase_covers input Hk0)].
  apply orb_true_iff. left.
  unfold base_ignored. rewrite Hnf. cbn [negb andb].
  destruct Hign as [H|H]; rewrite H; [reflexivity | apply orb_true_r].
Qed.

(* a special base, a reference with the scheme of the base *)
Theorem same_scheme_base_covers b sb input R :
  good_base dbg shs b sb -> sp_base_ok sb = true ->
  spec_scheme (spec_clean input) = Some (su_scheme sb, R) ->
  known_c01_v1 (Some b) input = 0 -> in_proved_class3 (Some sb) input = true.
Proof.
  intros [Rl Hok] Hsb Hs Hk.
  destruct (sp_base_ok_facts sb Hsb) as (Hop & Hsp & Hnf & h & Eh).
  pose proof Hok as Hok0. apply andb_true_iff in Hok0. destruct Hok0 as [Hcan HnsP].
  destruct (known_exact_base_scheme b input _ R Hs Hk) as (_ & Hd).
  rewrite (rel_sch _ _ _ _ Rl), Hsp, list_eqb_refl in Hd. cbn [andb] in Hd.
  cbn [in_proved_class3].
  assert (forall X, X = true -> in_class_same_bare sb input = X -> in_class_fragment_only input || in_class_query_only sb input
            || in_class_opaque_base_fail sb input || in_class_empty_ref sb input || in_class_relative sb input
            || in_class_abs_base sb input || in_class_relative_s sb input = true) as Kbare.
  { intros X -> E. apply orb_intro_r. unfold in_class_relative_s. apply orb_intro_r. exact E. }
  destruct R as [|c t].
  { apply (Kbare _ eq_refl). unfold in_class_same_bare. rewrite Hsb, Hs, list_eqb_refl. reflexivity. }
  destruct (is_qh c) eqn:Hbare.
  { apply (Kbare _ eq_refl). unfold in_class_same_bare. rewrite Hsb, Hs, list_eqb_refl, Hbare. reflexivity. }
  destruct (is_sl c) eqn:Esl.
  - destruct (match t with c2 :: _ => is_sl c2 | [] => false end) eqn:Esl2.
    + (* two slashes: the base is ignored *)
      assert (k_two_sl (c :: t) = true) as E2 by (destruct t as [|c2 T]; [discriminate Esl2|]; cbn [k_two_sl]; change (k_sl c) with (is_sl c); change (k_sl c2) with (is_sl c2); rewrite Esl, Esl2; reflexivity).
      assert (is_special_scheme (su_scheme sb) && list_eqb (su_scheme sb) (b_scheme b) && negb (k_two_sl (c :: t)) = false) as Hi
        by (rewrite E2; apply andb_false_r).
      apply orb_true_iff. left. apply orb_intro_r. unfold in_class_abs_base. rewrite Hs.
      apply andb_true_iff. split; [|exact (nobase_covers input (known_exact_absolute b input _ _ Hs Hi Hk))].
      apply orb_intro_r. unfold same_two_sl. rewrite list_eqb_refl, Hsp, Hnf. cbn [negb andb].
      destruct t as [|c2 T]; [discriminate Esl2|]. cbn [two_sl]. rewrite Esl, Esl2. reflexivity.
    + assert (k_two_sl (c :: t) = false) as E2 by (destruct t as [|c2 T]; [reflexivity|]; cbn [k_two_sl]; change (k_sl c2) with (is_sl c2); rewrite Esl2; apply andb_false_r).
      rewrite E2 in Hd. cbn [negb] in Hd. unfold k_relative in Hd. rewrite (related_cbb b sb Rl), Hop in Hd.
      change (k_qh c) with (is_qh c) in Hd. change (k_sl c) with (is_sl c) in Hd. rewrite Hbare, Esl in Hd.
      apply orb_intro_r. unfold in_class_relative_s. apply orb_true_iff. left. apply orb_true_iff. left. apply orb_intro_r.
      unfold in_class_same_abs_s. rewrite Hsb, Hs, list_eqb_refl, Esl, Esl2. cbn [negb andb].
      destruct t as [|c2 T]; [reflexivity|]. change (k_sl c2) with (is_sl c2) in Hd. rewrite Esl2 in Hd.
      exact (k_path_ok_spath_s0 _ (k_bad_ok _ Hd)).
  - assert (k_two_sl (c :: t) = false) as E2 by (destruct t as [|c2 T]; [reflexivity|]; cbn [k_two_sl]; change (k_sl c) with (is_sl c); rewrite Esl; reflexivity).
    rewrite E2 in Hd. cbn [negb] in Hd. unfold k_relative in Hd. rewrite (related_cbb b sb Rl), Hop in Hd.
    change (k_qh c) with (is_qh c) in Hd. change (k_sl c) with (is_sl c) in Hd. rewrite Hbare, Esl in Hd.
    apply orb_intro_r. unfold in_class_relative_s. apply orb_true_iff. left. apply orb_intro_r.
    unfold in_class_same_path_s. rewrite Hsb, Hs, list_eqb_refl, Esl. cbn [negb andb].
    unfold is_qh in Hbare. apply orb_false_iff in Hbare. destruct Hbare as [E63 E35]. rewrite E63, E35. cbn [negb andb].
    change (@nil N) with (upe in_path_set []).
    apply (k_path_ok_spath_s (c :: t) _ (k_base_stack b) []); [exact (base_stack_wrel b sb Rl Hop HnsP)|].
    exact (k_bad_ok _ Hd).
Qed.

End BaseCover.

(* every base, every reference *)
(* what is asked of a base record beyond good_base: base_shape_ok (Proofs/C01_EqShape.v) - a special non-file
   record is not opaque and has a host (true of every parse result, and of every result of the proved
   classes: class3_result_full) *)

Theorem base_covers dbg shs b sb input :
  good_base dbg shs b sb -> base_shape_ok sb = true ->
  known_c01_v1 (Some b) input = 0 -> in_proved_class3 (Some sb) input = true.
Proof.
  intros Hb Hshape Hk. pose proof Hb as [Rl Hok].
  destruct (spec_scheme (spec_clean input)) as [[sch R]|] eqn:Hs.
  - destruct (is_special_scheme sch) eqn:Hsp; [|exact (own_scheme_base_covers sb b input sch R (rel_sch _ _ _ _ Rl) Hs (or_introl Hsp) Hk)].
    destruct (list_eqb (su_scheme sb) sch) eqn:Eq; [|exact (own_scheme_base_covers sb b input sch R (rel_sch _ _ _ _ Rl) Hs (or_intror Eq) Hk)].
    apply list_eqb_spec in Eq. subst sch.
    destruct (known_exact_base_scheme b input _ R Hs Hk) as (Hnf & _).
    unfold base_shape_ok in Hshape. rewrite Hsp, Hnf in Hshape. cbn [negb orb] in Hshape.
    exact (same_scheme_base_covers dbg shs b sb input R Hb Hshape Hs Hk).
  - destruct (known_exact_base_noscheme b input Hs Hk) as [Hbare|(Hnf & _)]; [exact (bare_ref_covers sb input Hs Hbare)|].
    rewrite (rel_sch _ _ _ _ Rl) in Hnf.
    destruct (is_special_scheme (su_scheme sb)) eqn:Hsp; [|exact (nonspecial_base_covers dbg shs b sb input Hb Hsp Hs Hk)].
    unfold base_shape_ok in Hshape. rewrite Hsp, Hnf in Hshape. cbn [negb orb] in Hshape.
    exact (special_base_covers dbg shs b sb input Hb Hshape Hs Hk).
Qed.

(* C01_statement, slice by slice *)
From RU Require Import Model.Host Spec.WhatwgHostParse Proofs.C09_Host.

Section Statements.
Variable dbg : bool.
Variable hp hpo : list N -> result host.
Variable hd : host -> list N.
Variable shp : bool -> list N -> option spec_host.
Variable shs : spec_host -> list N.

(* base = None: every input outside Known_C01 *)
Theorem statement_nobase input : usv_list input -> known_c01_v1 None input = 0 ->
  host_hyp3 hp hpo hd shp shs None input ->
  agree_good dbg shs (parse_url dbg hp hpo hd None None input) (spec_basic_url_parse shp input None).
Proof.
  intros Hu Hk HH. apply (partial_equivalence_good3 dbg hp hpo hd shp shs input None None Hu I); [|exact HH].
  exact (nobase_covers input Hk).
Qed.

(* a good_base pair with a non-special scheme, scheme-less reference outside Known_C01 *)
Theorem statement_nonspecial_base b sb input : usv_list input ->
  good_base dbg shs b sb -> is_special_scheme (su_scheme sb) = false ->
  spec_scheme (spec_clean input) = None -> known_c01_v1 (Some b) input = 0 ->
  host_hyp3 hp hpo hd shp shs (Some sb) input ->
  agree_good dbg shs (parse_url dbg hp hpo hd None (Some b) input) (spec_basic_url_parse shp input (Some sb)).
Proof.
  intros Hu Hb Hnsp Hs Hk HH. apply (partial_equivalence_good3 dbg hp hpo hd shp shs input (Some b) (Some sb) Hu Hb); [|exact HH].
  exact (nonspecial_base_covers dbg shs b sb input Hb Hnsp Hs Hk).
Qed.

(* any good_base pair (special, file and opaque-path bases included), a reference with a scheme of its own
   that is non-special, or special and not the scheme of the base *)
Theorem statement_own_scheme_base b sb input sch R : usv_list input ->
  good_base dbg shs b sb -> spec_scheme (spec_clean input) = Some (sch, R) ->
  is_special_scheme sch = false \/ list_eqb (su_scheme sb) sch = false ->
  known_c01_v1 (Some b) input = 0 ->
  host_hyp3 hp hpo hd shp shs (Some sb) input ->
  agree_good dbg shs (parse_url dbg hp hpo hd None (Some b) input) (spec_basic_url_parse shp input (Some sb)).
Proof.
  intros Hu Hb Hs Hign Hk HH. apply (partial_equivalence_good3 dbg hp hpo hd shp shs input (Some b) (Some sb) Hu Hb); [|exact HH].
  exact (own_scheme_base_covers sb b input sch R (rel_sch _ _ _ _ (proj1 Hb)) Hs Hign Hk).
Qed.

(* a good_base pair with a special non-file scheme and a host, scheme-less reference *)
Theorem statement_special_base b sb input : usv_list input ->
  good_base dbg shs b sb -> sp_base_ok sb = true ->
  spec_scheme (spec_clean input) = None -> known_c01_v1 (Some b) input = 0 ->
  host_hyp3 hp hpo hd shp shs (Some sb) input ->
  agree_good dbg shs (parse_url dbg hp hpo hd None (Some b) input) (spec_basic_url_parse shp input (Some sb)).
Proof.
  intros Hu Hb Hsb Hs Hk HH. apply (partial_equivalence_good3 dbg hp hpo hd shp shs input (Some b) (Some sb) Hu Hb); [|exact HH].
  exact (special_base_covers dbg shs b sb input Hb Hsb Hs Hk).
Qed.

(* any base: a good_base pair of the right shape, any reference outside Known_C01 *)
Theorem statement_base b sb input : usv_list input ->
  good_base dbg shs b sb -> base_shape_ok sb = true ->
  known_c01_v1 (Some b) input = 0 ->
  host_hyp3 hp hpo hd shp shs (Some sb) input ->
  agree_good dbg shs (parse_url dbg hp hpo hd None (Some b) input) (spec_basic_url_parse shp input (Some sb)).
Proof.
  intros Hu Hb Hshape Hk HH. apply (partial_equivalence_good3 dbg hp hpo hd shp shs input (Some b) (Some sb) Hu Hb); [|exact HH].
  exact (base_covers dbg shs b sb input Hb Hshape Hk).
Qed.

(* all of it: no base, or a full_base pair *)
Definition full_rel (base : option url) (sbase : option spec_url) : Prop :=
  match base, sbase with
  | None, None => True
  | Some b, Some sb => full_base dbg shs b sb
  | _, _ => False
  end.

Theorem all_covers input base sbase : full_rel base sbase ->
  known_c01_v1 base input = 0 -> in_proved_class3 sbase input = true.
Proof.
  intros Hb Hk. destruct base as [b|]; destruct sbase as [sb|]; cbn [full_rel] in Hb; try contradiction.
  - destruct Hb as [Hg Hs]. exact (base_covers dbg shs b sb input Hg Hs Hk).
  - exact (nobase_covers input Hk).
Qed.

Theorem statement_all input base sbase : usv_list input ->
  full_rel base sbase -> known_c01_v1 base input = 0 ->
  host_hyp3 hp hpo hd shp shs sbase input ->
  agree_good dbg shs (parse_url dbg hp hpo hd None base input) (spec_basic_url_parse shp input sbase)
  /\ (forall su u, spec_basic_url_parse shp input sbase = BDone su -> parse_url dbg hp hpo hd None base input = POk u ->
        full_base dbg shs u su).
Proof.
  intros Hu Hb Hk HH. pose proof (all_covers input base sbase Hb Hk) as Hc.
  assert (base_rel3 dbg shs base sbase) as Hb3.
  { destruct base as [b|]; destruct sbase as [sb|]; cbn [full_rel] in Hb; try contradiction; [exact (proj1 Hb) | exact I]. }
  pose proof (partial_equivalence_good3 dbg hp hpo hd shp shs input base sbase Hu Hb3 Hc HH) as A.
  split; [exact A|]. intros su u HS Hm. rewrite HS in A.
  exact (class3_result_full dbg shs shp input base sbase _ su u Hu Hb Hc HS A Hm).
Qed.

End Statements.

(* the same for the parser model with the host model plugged in against the Standard's parser with the
   Standard's host parser, relative to IdnaOK idna only *)
Theorem statement_nobase_model dbg idna : IdnaOK idna -> forall input,
  usv_list input -> known_c01_v1 None input = 0 ->
  agree_good dbg spec_host_serializer
    (parse_url dbg (host_parse idna) host_parse_opaque host_display None None input)
    (spec_basic_url_parse (spec_host_parser idna) input None).
Proof.
  intros HI input Hu Hk. apply statement_nobase; [exact Hu | exact Hk|].
  apply host_hyp3_model; [exact (idna_out idna HI) | exact Hu].
Qed.

Theorem statement_nonspecial_base_model dbg idna : IdnaOK idna -> forall b sb input,
  usv_list input -> good_base dbg spec_host_serializer b sb -> is_special_scheme (su_scheme sb) = false ->
  spec_scheme (spec_clean input) = None -> known_c01_v1 (Some b) input = 0 ->
  agree_good dbg spec_host_serializer
    (parse_url dbg (host_parse idna) host_parse_opaque host_display None (Some b) input)
    (spec_basic_url_parse (spec_host_parser idna) input (Some sb)).
Proof.
  intros HI b sb input Hu Hb Hnsp Hs Hk. apply statement_nonspecial_base; try assumption.
  apply host_hyp3_model; [exact (idna_out idna HI) | exact Hu].
Qed.

Theorem statement_own_scheme_base_model dbg idna : IdnaOK idna -> forall b sb input sch R,
  usv_list input -> good_base dbg spec_host_serializer b sb -> spec_scheme (spec_clean input) = Some (sch, R) ->
  is_special_scheme sch = false \/ list_eqb (su_scheme sb) sch = false ->
  known_c01_v1 (Some b) input = 0 ->
  agree_good dbg spec_host_serializer
    (parse_url dbg (host_parse idna) host_parse_opaque host_display None (Some b) input)
    (spec_basic_url_parse (spec_host_parser idna) input (Some sb)).
Proof.
  intros HI b sb input sch R Hu Hb Hs Hign Hk. apply (statement_own_scheme_base dbg _ _ _ _ _ b sb input sch R); try assumption.
  apply host_hyp3_model; [exact (idna_out idna HI) | exact Hu].
Qed.

Theorem statement_special_base_model dbg idna : IdnaOK idna -> forall b sb input,
  usv_list input -> good_base dbg spec_host_serializer b sb -> sp_base_ok sb = true ->
  spec_scheme (spec_clean input) = None -> known_c01_v1 (Some b) input = 0 ->
  agree_good dbg spec_host_serializer
    (parse_url dbg (host_parse idna) host_parse_opaque host_display None (Some b) input)
    (spec_basic_url_parse (spec_host_parser idna) input (Some sb)).
Proof.
  intros HI b sb input Hu Hb Hsb Hs Hk. apply statement_special_base; try assumption.
  apply host_hyp3_model; [exact (idna_out idna HI) | exact Hu].
Qed.

Theorem statement_base_model dbg idna : IdnaOK idna -> forall b sb input,
  usv_list input -> good_base dbg spec_host_serializer b sb -> base_shape_ok sb = true ->
  known_c01_v1 (Some b) input = 0 ->
  agree_good dbg spec_host_serializer
    (parse_url dbg (host_parse idna) host_parse_opaque host_display None (Some b) input)
    (spec_basic_url_parse (spec_host_parser idna) input (Some sb)).
Proof.
  intros HI b sb input Hu Hb Hshape Hk. apply statement_base; try assumption.
  apply host_hyp3_model; [exact (idna_out idna HI) | exact Hu].
Qed.

Theorem statement_all_model dbg idna : IdnaOK idna -> forall input base sbase,
  usv_list input -> full_rel dbg spec_host_serializer base sbase -> known_c01_v1 base input = 0 ->
  agree_good dbg spec_host_serializer
    (parse_url dbg (host_parse idna) host_parse_opaque host_display None base input)
    (spec_basic_url_parse (spec_host_parser idna) input sbase)
  /\ (forall su u, spec_basic_url_parse (spec_host_parser idna) input sbase = BDone su ->
        parse_url dbg (host_parse idna) host_parse_opaque host_display None base input = POk u ->
        full_base dbg spec_host_serializer u su).
Proof.
  intros HI input base sbase Hu Hb Hk. apply statement_all; try assumption.
  apply host_hyp3_model; [exact (idna_out idna HI) | exact Hu].
Qed.

(* the statement in the shape of C01_statement *)
(* the ten API strings of a model record as a total function (the getters do not panic on the records the
   theorem returns) *)
Definition api_total (dbg : bool) (u : url) : list (list N) :=
  match api_of_model dbg u with Some l => l | None => [] end.

(* the match of C01_statement, with the one outcome pair the Standard does not know made explicit *)
Definition statement_shape (dbg : bool) (shs : spec_host -> list N) (m : pres url) (s : parse_outcome) : Prop :=
  match m, s with
  | POk u, BDone su => api_total dbg u = spec_api_list shs su
  | PErr Overflow, BDone su => U32_MAX_P < nlen (get_href shs su)
  | PErr _, BFailure _ => True
  | _, _ => False
  end.

Lemma agree_good_shape dbg shs m s : agree_good dbg shs m s -> statement_shape dbg shs m s.
Proof.
  unfold agree_good, statement_shape. destruct s as [su|uf|].
  - intros [_ [[-> B]|(u & -> & R)]]; [exact B|]. unfold api_total. rewrite (rel_api _ _ _ _ R). reflexivity.
  - intros [e ->]. destruct e; exact I.
  - intros [].
Qed.

Theorem statement_instance dbg idna : IdnaOK idna -> forall input base sbase,
  usv_list input -> full_rel dbg spec_host_serializer base sbase -> known_c01_v1 base input = 0 ->
  statement_shape dbg spec_host_serializer
    (parse_url dbg (host_parse idna) host_parse_opaque host_display None base input)
    (spec_basic_url_parse (spec_host_parser idna) input sbase).
Proof.
  intros HI input base sbase Hu Hb Hk. apply agree_good_shape.
  exact (proj1 (statement_all_model dbg idna HI input base sbase Hu Hb Hk)).
Qed.

(* the classes of Known_C01 are inhabited by real divergences *)
(* the identity as the domain-to-ASCII oracle: all witnesses are ASCII *)
Definition id_idna (x : list N) : option (list N) := Some x.
Definition sides_differ (base : option url) (sbase : option spec_url) (input : list N) : Prop :=
  ~ statement_shape true spec_host_serializer
      (parse_url true (host_parse id_idna) host_parse_opaque host_display None base input)
      (spec_basic_url_parse (spec_host_parser id_idna) input sbase).

Definition wit_k1 : list N := [102;105;108;101;58;47;47;47;67;124].          (* file:///C|   : file:///C| vs file:///C: *)
Definition wit_k2 : list N := [110;58;47;67;124;47;46;46].                    (* n:/C|/..     : n:/C|/ vs n:/ *)
Definition wit_k3 : list N := [110;58;47;47;120;46;121;58;56;92].             (* n://x.y:8\   : accepted vs failure *)
Definition wit_k4 : list N := [98;108;111;98;58;47;47;58;64;47].              (* blob://:@/   : accepted vs failure *)

Theorem known_classes_refuted :
  (known_c01_v1 None wit_k1 = 1 /\ sides_differ None None wit_k1)
  /\ (known_c01_v1 None wit_k2 = 2 /\ sides_differ None None wit_k2)
  /\ (known_c01_v1 None wit_k3 = 3 /\ sides_differ None None wit_k3)
  /\ (known_c01_v1 None wit_k4 = 4 /\ sides_differ None None wit_k4).
Proof.
  repeat split; try (vm_compute; reflexivity); unfold sides_differ; vm_compute; intros H; try exact H; try discriminate H.
Qed.

(* class 2 through the base: "../y" against n:/C:/x  (n:/C:/y vs n:/y) *)
Definition wit_k2_base : list N := [110;58;47;67;58;47;120].                  (* n:/C:/x *)
Definition wit_k2_ref : list N := [46;46;47;121].                             (* ../y *)
Theorem known_class2_base_refuted :
  match parse_url true (host_parse id_idna) host_parse_opaque host_display None None wit_k2_base,
        spec_basic_url_parse (spec_host_parser id_idna) wit_k2_base None with
  | POk b, BDone sb => known_c01_v1 (Some b) wit_k2_ref = 2 /\ known_c01_v1 None wit_k2_base = 0
                       /\ sides_differ (Some b) (Some sb) wit_k2_ref
  | _, _ => False
  end.
Proof.
  vm_compute. split; [reflexivity|]. split; [reflexivity|]. intros H; discriminate H.
Qed.

(* inputs inside the broad classes of known_c01_broad and outside the exact classes (on them the sides agree by
   statement_all): ':@' in a special URL and inside credentials, a drive-letter-shaped segment that no ".."
   meets, a backslash in the path / query of a non-special URL *)
Definition nar_1 : list N := [104;116;116;112;58;47;47;117;58;64;104;47].            (* http://u:@h/ *)
Definition nar_2 : list N := [110;58;47;47;117;58;64;104;47;58;64].                  (* n://u:@h/:@ *)
Definition nar_3 : list N := [110;58;47;47;104;47;67;58;47;120;47;46;46].            (* n://h/C:/x/.. *)
Definition nar_4 : list N := [110;58;47;47;104;58;56;47;97;92;98;63;92].             (* n://h:8/a\b?\ *)
Theorem known_narrowed :
  (known_c01_broad None nar_1 = 4 /\ known_c01_v1 None nar_1 = 0)
  /\ (known_c01_broad None nar_2 = 4 /\ known_c01_v1 None nar_2 = 0)
  /\ (known_c01_broad None nar_3 = 2 /\ known_c01_v1 None nar_3 = 0)
  /\ (known_c01_broad None nar_4 = 3 /\ known_c01_v1 None nar_4 = 0).
Proof. vm_compute. repeat split. Qed.

(* class 1 does not contain the bare references against a file base *)
Definition file_base_text : list N := [102;105;108;101;58;47;47;104;47;116;109;112;47;120].   (* file://h/tmp/x *)
Theorem known_file_bare :
  match parse_url true (host_parse id_idna) host_parse_opaque host_display None None file_base_text with
  | POk b => known_c01_v1 (Some b) [35; 102] = 0 /\ known_c01_v1 (Some b) [63; 113] = 0 /\ known_c01_v1 (Some b) [] = 0
             /\ known_c01_v1 (Some b) [32; 9] = 0 /\ known_c01_v1 (Some b) [120] = 1 /\ known_c01_v1 (Some b) [47; 120] = 1
  | _ => False
  end.
Proof. vm_compute. repeat split. Qed.
