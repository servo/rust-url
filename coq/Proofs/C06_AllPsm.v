(* Proofs/C06_AllPsm.v - the histories of C06_all extended by path_segments_mut sessions (all five editor
   operations, any &str arguments: C06_SegPush.v), by set_path on the authority-less '/'-led layout (C06_SpliceNoAuth.v) and by the mutators whose canonicity C02 proves outside its known step
   classes (C02_Reach4.canon_op3: set_ip_host, set_host(Some), set_scheme, quirks protocol, set_path / quirks
   pathname with ANY &str on URLs with an authority).  ReachC6p: every record of such a history is Canon, hence
   wfh, auth_end_ok, all_calls (C06_all) - and psm_calls: a session on such a record (with an authority) returns a
   canonical record which is with_path u (session_text ..), with the frame. *)
From Coq Require Import String.
From RU Require Import Proofs.C15_Ser.
From RU Require Import Base.Prelude Base.Utf8 Base.Utf8Facts Base.Outcome_c15 Model.AsciiSet Gen.Tables
  Model.PercentEncoding Model.HostT Model.UrlRecord Model.Parser Model.Setters Model.WF Model.FormUrlencoded
  Model.QueryPairs
  Proofs.ListN Proofs.C03_WF Proofs.C06_List Proofs.C06_WFI Proofs.C06_Tail Proofs.C06_Steps Proofs.C06_Suffix
  Proofs.C06_Front Proofs.C06_Atomic Proofs.C06_FragQuery Proofs.C06_Port Proofs.C06_Cred Proofs.C06_Scheme
  Proofs.C06_HostNone Proofs.C06_Host Proofs.C06_PathParser Proofs.C06_Path Proofs.C06_Segments Proofs.C06_PathNoAuth
  Proofs.C06_Main Proofs.C03_ReachParts Proofs.C03_ReachHost Proofs.C06_Quirks
  Proofs.C14_Set Proofs.C02_Enc Proofs.C02_Parts Proofs.C02_Opaque Proofs.C02_Path Proofs.C02_PathL1 Proofs.C02_Reach
  Proofs.C02_AuthParts Proofs.C02_Auth Proofs.C02_AuthWf Proofs.C02_PathSp Proofs.C02_AuthSp Proofs.C02_AuthMain
  Proofs.C02_Hist Proofs.C02_SetQF Proofs.C02_Canon Proofs.C02_SetPort Proofs.C02_JoinTail Proofs.C02_ReachPartial
  Proofs.C02_Form Proofs.C02_SetCred Proofs.C02_SetCredCanon Proofs.C02_QPort Proofs.C02_Reach3
  Proofs.C02_SetHostFrame Proofs.C02_SetHostCanon Proofs.C02_SetScheme Proofs.C02_PathSetter Proofs.C02_SetPath Proofs.C02_Reach4
  Proofs.C06_Agree Proofs.C06_AgreeUrl Proofs.C06_Splice Proofs.C06_SpliceAuth Proofs.C06_SpliceCred
  Proofs.C06_SplicePath Proofs.C06_SpliceHost Proofs.C06_All Proofs.C06_SegPush Proofs.C06_PushCanon Proofs.C06_SpliceNoAuth.
Open Scope N_scope.
Open Scope list_scope.

Section AllPsm.
Variable dbg : bool.
Variable hp hpo : list N -> result host.
Variable hd : host -> list N.
Hypothesis HOK : HostOK2 hp hpo hd.
Hypothesis HNE : host_nonempty hp hpo.

Let HRT : HostRT hp hpo hd := proj1 HOK.
Let HAb : host_above hp hpo hd := proj1 (proj2 HOK).
Let HIP : ip_clause hp hpo hd := proj2 (proj2 HOK).

Notation Canon := (Canon hp hpo hd).

Inductive ReachC6p : url -> Prop :=
| P_parse ovr input u :
    usv_list input -> nonfile_input input = true -> (ovr = None \/ special_input input = false) ->
    parse_url dbg hp hpo hd ovr None input = POk u -> ReachC6p u
| P_join ovr b input u :
    ReachC6p b -> usv_list input -> tail_ref input = true ->
    (ovr = None \/ st_is_special (scheme_type_of (b_scheme b)) = false) ->
    parse_url dbg hp hpo hd ovr (Some b) input = POk u -> ReachC6p u
| P_step u o u' :
    ReachC6p u -> canon_op3 u o = true -> op_args_ok o -> known_step2 dbg hp hpo hd u o = false ->
    apply_op dbg hp hpo hd u o = Some u' -> nlen (ser u') <= U32_MAX_P -> ReachC6p u'
| P_qpm u ops u' :
    ReachC6p u -> Forall op_ok ops -> query_pairs_session dbg u ops = Some u' ->
    nlen (ser u') <= U32_MAX_P -> ReachC6p u'
| P_path u x u' :
    ReachC6p u -> has_authority_b u = true -> usv_list x -> forallb no_qh x = true -> path_arg_ok (sp_of u) x ->
    set_path dbg u x = Some u' -> nlen (ser u') <= U32_MAX_P -> ReachC6p u'
| P_host u x u' :
    ReachC6p u -> has_authority_b u = true -> forallb (hostarg (sp_of u)) x = true ->
    set_host dbg hp hpo hd u (Some x) = Some (u', SOk) -> empty_host_ok u u' ->
    nlen (ser u') <= U32_MAX_P -> ReachC6p u'
| P_path_noauth u rest u' :
    ReachC6p u -> has_authority_b u = false -> byte_eqb (ser u) (scheme_end u + 1) 47 = true ->
    path_start u = scheme_end u + 1 -> usv_list (47 :: rest) -> forallb no_qh (47 :: rest) = true ->
    inp_starts_with_char 47 rest = false -> set_path dbg u (47 :: rest) = Some u' -> nlen (ser u') <= U32_MAX_P ->
    C06_HostNone.path_starts_with_2slash u' = false -> ReachC6p u'
| P_psm u ops u' :
    ReachC6p u -> has_authority_b u = true -> Forall psm_op_usv ops ->
    path_segments_session dbg u ops = Some (u', SOk) -> nlen (ser u') <= U32_MAX_P -> ReachC6p u'.

Lemma ReachC6_C6p u : ReachC6 dbg hp hpo hd u -> ReachC6p u.
Proof.
  induction 1 as [ovr input u Hu Hn Hov Hp | ovr b input u Hr IH Hu Ht Hov Hp | u o u' Hr IH Ht Ha Ho Hb
                 | u ops u' Hr IH Hops Hs Hb | u x u' Hr IH Hau Hx Hq Hpa E Hb | u x u' Hr IH Hau Hxa E Hemp Hb].
  - exact (P_parse ovr input u Hu Hn Hov Hp).
  - exact (P_join ovr b input u IH Hu Ht Hov Hp).
  - exact (P_step u o u' IH (canon_op_3 u o Ht) Ha (canon_op_not_known dbg hp hpo hd u o Ht) Ho Hb).
  - exact (P_qpm u ops u' IH Hops Hs Hb).
  - exact (P_path u x u' IH Hau Hx Hq Hpa E Hb).
  - exact (P_host u x u' IH Hau Hxa E Hemp Hb).
Qed.

Lemma ReachC3_C6p u : ReachC3 dbg hp hpo hd u -> ReachC6p u.
Proof.
  induction 1 as [ovr input u Hu Hn Hov Hp | ovr b input u Hr IH Hu Ht Hov Hp | u o u' Hr IH Ht Ha Hk Ho Hb
                 | u ops u' Hr IH Hops Hs Hb].
  - exact (P_parse ovr input u Hu Hn Hov Hp).
  - exact (P_join ovr b input u IH Hu Ht Hov Hp).
  - exact (P_step u o u' IH Ht Ha Hk Ho Hb).
  - exact (P_qpm u ops u' IH Hops Hs Hb).
Qed.

(* one step of C02_Reach4's operations keeps Canon (the case analysis of ReachC3_Canon) *)
Lemma canon_step3 u o u' : Canon u -> canon_op3 u o = true -> op_args_ok o -> known_step2 dbg hp hpo hd u o = false ->
  apply_op dbg hp hpo hd u o = Some u' -> nlen (ser u') <= U32_MAX_P -> Canon u'.
Proof.
  intros IH Ht Ha Hk Ho Hb. destruct (canon_op o) eqn:Ec.
  { exact (canon_step dbg hp hpo hd HRT u o u' IH Ec Ha Ho Hb). }
  destruct o; try discriminate Ec; try discriminate Ht; cbn [apply_op op_args_ok canon_op3] in *.
  - exact (C02_SetPath.set_path_Canon dbg hp hpo hd u p u' IH Ht Ha Ho Hb).
  - destruct h as [x|]; [|discriminate Ht].
    destruct (option_map_fst_some _ _ Ho) as [s Es].
    exact (set_host_some_Canon dbg hp hpo hd HRT HAb u x u' s HNE IH Ha Hk Es Hb).
  - destruct (option_map_fst_some _ _ Ho) as [s Es].
    exact (set_ip_host_Canon dbg hp hpo hd HRT HAb u h u' s HIP IH Ha Hk Es Hb).
  - destruct (option_map_fst_some _ _ Ho) as [s0 Es].
    exact (set_scheme_Canon dbg hp hpo hd u s u' s0 IH Es Hb).
  - destruct (option_map_fst_some _ _ Ho) as [s0 Es].
    exact (q_set_protocol_Canon dbg hp hpo hd u s u' s0 IH Es Hb).
  - exact (q_set_pathname_Canon dbg hp hpo hd u s u' IH Ht Ha Ho Hb).
Qed.

Theorem ReachC6p_Canon u : ReachC6p u -> Canon u.
Proof.
  induction 1 as [ovr input u Hu Hn Hov Hp | ovr b input u Hr IH Hu Ht Hov Hp | u o u' Hr IH Ht Ha Hk Ho Hb
                 | u ops u' Hr IH Hops Hs Hb | u x u' Hr IH Hau Hx Hq Hpa E Hb | u x u' Hr IH Hau Hxa E Hemp Hb
                 | u rest u' Hr IH Hna Hsl Hps Hx Hq Hn2 E Hb H2
                 | u ops u' Hr IH Hau Hu E Hb].
  - exact (parse_Canon dbg hp hpo hd HRT ovr input u HAb Hu Hn Hov Hp).
  - exact (join_tail_Canon dbg hp hpo hd HRT ovr b input u IH Hu Ht Hov Hp).
  - exact (canon_step3 u o u' IH Ht Ha Hk Ho Hb).
  - exact (qpm_Canon dbg hp hpo hd HRT u ops u' IH Hops Hs Hb).
  - exact (C06_SplicePath.set_path_Canon dbg hp hpo hd HRT u x u' IH Hau Hx Hq Hpa E Hb).
  - exact (set_host_Canon dbg hp hpo hd HRT HAb u x u' IH Hau Hxa E Hemp Hb).
  - exact (set_path_noauth_Canon dbg hp hpo hd u rest u' IH Hna Hsl Hps Hx Hq Hn2 E Hb H2).
  - exact (psm_Canon dbg hp hpo hd HRT u ops u' IH Hau Hu E Hb).
Qed.

(* what a path_segments_mut session does to a canonical record with an authority *)
Definition psm_calls (u : url) : Prop :=
  forall ops u', has_authority_b u = true -> Forall psm_op_usv ops ->
    path_segments_session dbg u ops = Some (u', SOk) -> nlen (ser u') <= U32_MAX_P ->
    Canon u' /\ u' = with_path u (session_text (st_of u) (path_bytes u) ops)
    /\ path u = Some (path_bytes u) /\ path u' = Some (session_text (st_of u) (path_bytes u) ops)
    /\ same_front dbg u u' /\ query dbg u' = query dbg u /\ fragment dbg u' = fragment dbg u.

Theorem psm_calls_canon u : Canon u -> psm_calls u.
Proof.
  intros C ops u' Hau Hu E Hb.
  pose proof (psm_Canon dbg hp hpo hd HRT u ops u' C Hau Hu E Hb) as C'.
  destruct (Canon_wfh dbg hp hpo hd HRT u C) as [W HT]. destruct (Canon_wfh dbg hp hpo hd HRT u' C') as [W' _].
  destruct (Canon_auth_cases hp hpo hd u C Hau) as (st & sch & ui & h & pt & p & q & f & Eu & K & Hc).
  assert (u' = with_path u (session_text (st_of u) (path_bytes u) ops) /\ path_bytes u' = session_text (st_of u) (path_bytes u) ops) as [X1 X2].
  { subst u. destruct (psm_auth dbg hp hpo hd HRT st sch ui h pt p q f ops u' K Hc Hu E) as (p' & Hc' & Eu' & Et).
    assert (st_of (auth_url hd sch ui h pt p q f) = st) as Est.
    { unfold st_of. rewrite (auth_stype hd). exact (ak_st _ _ _ _ _ _ _ _ _ _ _ K). }
    rewrite Est, (auth_path_bytes hd). split.
    - rewrite Eu', <- Et. rewrite !auth_url_qf. unfold C02_Auth.auth_pre. symmetry. apply with_path_qf.
    - rewrite Eu', (auth_path_bytes hd). exact Et. }
  destruct (path_segments_session_ok dbg u ops u' W HT Hau Hu E) as (_ & _ & F1 & F2 & F3 & _).
  split; [exact C'|]. split; [exact X1|]. split; [exact (path_text_is_path u W)|].
  split; [rewrite (path_text_is_path u' W'), X2; reflexivity|]. split; [exact F1|]. split; [exact F2 | exact F3].
Qed.

Theorem all_reach_p u : ReachC6p u ->
  Canon u /\ wfh u /\ auth_end_ok u /\ all_calls dbg hp hpo hd u /\ psm_calls u.
Proof.
  intros R. pose proof (ReachC6p_Canon u R) as C.
  split; [exact C|]. split; [exact (Canon_wfh dbg hp hpo hd HRT u C)|]. split; [exact (Canon_auth_end_ok hp hpo hd u C)|].
  split; [exact (all_canon dbg hp hpo hd u HRT HAb C) | exact (psm_calls_canon u C)].
Qed.
End AllPsm.
