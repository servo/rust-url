(* Proofs/Idna_Mark.v - the mark-errors run (fail_fast = false) of the UTS #46 model, label level:
     - it never takes the early return;
     - every label-level function only REPLACES characters by U+FFFD (relation `marked`), and it sets had_errors
       exactly when it leaves a U+FFFD behind (transition T);
     - the functions that replace the label (after_punycode_decode, the decode branch of end_sublabel) return a
       text without dots, with had_errors' = had_errors || (the text contains U+FFFD).
   Loop level and result (what the Mark* / Walk* files use):
     - `cover`: which input labels the entries of already_punycode stand for; `pre_ok`: a label of domain_buffer whose
       entry is MixedCaseAscii has no U+FFFD;
     - SInv / label_step_SInv / labels_loop_SInv: the invariant of the label loop;
     - FInv / process_inner_FInv: what the marking run of process_inner returns; mark_he_exact: had_errors is exactly
       `domain_buffer contains U+FFFD`;
     - split_join, fast_tier_suffix: split_on / join_dots on dot-free labels, the suffix left by the fast tier.
   Valid for every adapter; no premise. *)
From RU Require Import Base.Prelude Base.Utf8 Base.U32_c13 Gen.Tables Model.Punycode Model.Uts46
  Proofs.Idna_Sim Proofs.Idna_Api Proofs.Idna_Known Proofs.Idna_Hyp Proofs.Idna_C10_Deny.

Definition fffd (l : list N) : bool := existsb is_fffd l.
Definition nodot (l : list N) : Prop := Forall (fun c => c <> DOT) l.
Definition marked (l l' : list N) : Prop := Forall2 (fun a b => b = a \/ b = FFFD) l l'.

Lemma is_fffd_FFFD : is_fffd FFFD = true.
Proof. reflexivity. Qed.
Lemma FFFD_not_dot : FFFD <> DOT.
Proof. unfold FFFD, REPLACEMENT, DOT. lia. Qed.

Lemma marked_refl l : marked l l.
Proof. induction l as [|x r IH]; constructor; [left; reflexivity|exact IH]. Qed.
Lemma marked_trans a b c : marked a b -> marked b c -> marked a c.
Proof.
  intros H. revert c. induction H as [|x y a b Hxy _ IH]; intros c Hc; inversion Hc as [|? z ? c' Hyz Hbc]; subst; constructor.
  - destruct Hyz as [-> | ->]; [exact Hxy|right; reflexivity].
  - apply IH. exact Hbc.
Qed.
Lemma marked_app a a' b b' : marked a a' -> marked b b' -> marked (a ++ b) (a' ++ b').
Proof. apply Forall2_app. Qed.
Lemma marked_cons_keep c l l' : marked l l' -> marked (c :: l) (c :: l').
Proof. intros H. constructor; [left; reflexivity|exact H]. Qed.
Lemma marked_cons_mark c l l' : marked l l' -> marked (c :: l) (FFFD :: l').
Proof. intros H. constructor; [right; reflexivity|exact H]. Qed.
Lemma marked_length l l' : marked l l' -> length l' = length l.
Proof. intros H. induction H as [|x y a b _ _ IH]; [reflexivity|]. cbn [length]. rewrite IH. reflexivity. Qed.
Lemma marked_nodot l l' : nodot l -> marked l l' -> nodot l'.
Proof.
  intros Hn H. induction H as [|x y a b Hxy _ IH]; [constructor|]. inversion Hn as [|? ? Hx Ha]; subst.
  constructor; [destruct Hxy as [-> | ->]; [exact Hx|exact FFFD_not_dot]|exact (IH Ha)].
Qed.
Lemma marked_fffd l l' : fffd l = true -> marked l l' -> fffd l' = true.
Proof.
  intros Hf H. induction H as [|x y a b Hxy _ IH]; [discriminate|]. unfold fffd in *. cbn [existsb] in *.
  apply orb_true_iff in Hf. destruct Hf as [Hf|Hf].
  - destruct Hxy as [-> | ->]; [rewrite Hf|rewrite is_fffd_FFFD]; reflexivity.
  - rewrite (IH Hf). apply orb_true_r.
Qed.
Lemma marked_set_nth l : forall n, marked l (set_nth n FFFD l).
Proof.
  induction l as [|x r IH]; intros n; [destruct n; constructor|].
  destruct n; cbn [set_nth]; [apply marked_cons_mark, marked_refl|apply marked_cons_keep, IH].
Qed.
Lemma marked_set_last l : marked l (set_last FFFD l).
Proof.
  induction l as [|x r IH]; [constructor|]. destruct r as [|y r'].
  - cbn [set_last]. apply marked_cons_mark. constructor.
  - change (set_last FFFD (x :: y :: r')) with (x :: set_last FFFD (y :: r')). apply marked_cons_keep. exact IH.
Qed.
Lemma fffd_set_nth l : forall n, (n < length l)%nat -> fffd (set_nth n FFFD l) = true.
Proof.
  induction l as [|x r IH]; intros n Hn; cbn [length] in Hn; [lia|]. destruct n; cbn [set_nth].
  - reflexivity.
  - unfold fffd in *. cbn [existsb]. rewrite (IH n ltac:(lia)). apply orb_true_r.
Qed.
Lemma fffd_set_last l : l <> [] -> fffd (set_last FFFD l) = true.
Proof.
  induction l as [|x r IH]; intros Hn; [congruence|]. destruct r as [|y r'].
  - reflexivity.
  - change (set_last FFFD (x :: y :: r')) with (x :: set_last FFFD (y :: r')). unfold fffd in *. cbn [existsb].
    rewrite IH by discriminate. apply orb_true_r.
Qed.
Lemma fffd_app a b : fffd (a ++ b) = fffd a || fffd b.
Proof. unfold fffd. apply existsb_app. Qed.
Lemma nodot_app a b : nodot (a ++ b) <-> nodot a /\ nodot b.
Proof. unfold nodot. apply Forall_app. Qed.

(* T: the transition of a marking function on (label, had_errors): characters are only replaced by U+FFFD, and
   either nothing changed or had_errors is set and the label contains U+FFFD *)
Definition T (lab : list N) (he : bool) (l' : list N) (he' : bool) : Prop :=
  marked lab l' /\ ((l' = lab /\ he' = he) \/ (he' = true /\ fffd l' = true)).
Lemma T_refl lab he : T lab he lab he.
Proof. split; [apply marked_refl|left; split; reflexivity]. Qed.
Lemma T_mark lab he l' : marked lab l' -> fffd l' = true -> T lab he l' true.
Proof. intros H1 H2. split; [exact H1|right; split; [reflexivity|exact H2]]. Qed.
Lemma T_trans a h b h1 c h2 : T a h b h1 -> T b h1 c h2 -> T a h c h2.
Proof.
  intros [M1 D1] [M2 D2]. split; [exact (marked_trans _ _ _ M1 M2)|].
  destruct D1 as [[-> ->]|[-> F1]]; [exact D2|].
  right. destruct D2 as [[-> ->]|[-> F2]]; split; try reflexivity; assumption.
Qed.
Lemma T_he_mono lab l' he' : T lab true l' he' -> he' = true.
Proof. intros [_ [[_ ->]|[-> _]]]; reflexivity. Qed.
Lemma T_after_mark lab lab1 he l' he' : marked lab lab1 -> fffd lab1 = true -> T lab1 true l' he' -> T lab he l' he'.
Proof.
  intros M F [M2 D]. split; [exact (marked_trans _ _ _ M M2)|]. right.
  destruct D as [[-> ->]|[-> F2]]; split; try reflexivity; assumption.
Qed.
Lemma T_pre p lab he l' he' : T lab he l' he' -> T (p ++ lab) he (p ++ l') he'.
Proof.
  intros [M D]. split; [apply marked_app; [apply marked_refl|exact M]|].
  destruct D as [[-> ->]|[-> F]]; [left; split; reflexivity|right; split; [reflexivity|]].
  rewrite fffd_app, F. apply orb_true_r.
Qed.
Lemma T_suf s lab he l' he' : T lab he l' he' -> T (lab ++ s) he (l' ++ s) he'.
Proof.
  intros [M D]. split; [apply marked_app; [exact M|apply marked_refl]|].
  destruct D as [[-> ->]|[-> F]]; [left; split; reflexivity|right; split; [reflexivity|]].
  rewrite fffd_app, F. reflexivity.
Qed.
(* the consequences used at the level of the buffers *)
Lemma T_exact lab he l' he' : T lab he l' he' -> (fffd lab = true -> he = true) -> he' = he || fffd l'.
Proof.
  intros [_ [[-> ->]|[-> F]]] E.
  - destruct (fffd lab) eqn:Ef; [rewrite (E eq_refl); reflexivity|rewrite orb_false_r; reflexivity].
  - rewrite F. rewrite orb_true_r. reflexivity.
Qed.

(* MK: a label-level step r started on (lab, he) does not take the early return and, if it returns, made a T transition *)
Definition MK (lab : list N) (he : bool) (r : lstep) : Prop :=
  match r with SOk (l', he') => T lab he l' he' | SExit => False | SPanic _ => True end.
Lemma MK_bind lab he r (k : list N * bool -> lstep) :
  MK lab he r -> (forall l1 h1, T lab he l1 h1 -> MK l1 h1 (k (l1, h1))) -> MK lab he (sbind r k).
Proof.
  destruct r as [[l1 h1]| |s]; cbn [MK sbind]; intros H Hk; [|exact H|exact I].
  specialize (Hk l1 h1 H). destruct (k (l1, h1)) as [[l2 h2]| |s]; cbn [MK] in *; [|exact Hk|exact I].
  exact (T_trans _ _ _ _ _ _ H Hk).
Qed.
Lemma MK_ret lab he : MK lab he (SOk (lab, he)).
Proof. apply T_refl. Qed.
Lemma MK_after_mark lab lab1 he r : marked lab lab1 -> fffd lab1 = true -> MK lab1 true r -> MK lab he r.
Proof. intros M F. destruct r as [[l' h']| |s]; cbn [MK]; [apply T_after_mark; assumption|auto|auto]. Qed.
Lemma MK_lcons_keep c r he res : MK r he res -> MK (c :: r) he (lcons c res).
Proof. destruct res as [[l' h']| |s]; cbn [MK lcons]; [apply (T_pre [c])|auto|auto]. Qed.
Lemma MK_lcons_mark c r he res : MK r true res -> MK (c :: r) he (lcons FFFD res).
Proof.
  destruct res as [[l' h']| |s]; cbn [MK lcons]; [|auto|auto]. intros H.
  pose proof (T_he_mono _ _ _ H) as ->. apply T_mark; [apply marked_cons_mark; exact (proj1 H)|reflexivity].
Qed.

Lemma scan_mark_MK bad l : forall he, MK l he (scan_mark false bad l he).
Proof.
  induction l as [|c r IH]; intros he; cbn [scan_mark]; [apply MK_ret|].
  destruct (bad c); [apply MK_lcons_mark|apply MK_lcons_keep]; apply IH.
Qed.

Lemma set_nth_length (v : N) l : forall n, length (set_nth n v l) = length l.
Proof. induction l as [|x r IH]; intros n; [destruct n; reflexivity|]. destruct n; cbn [set_nth length]; [reflexivity|rewrite IH; reflexivity]. Qed.
Lemma last_opt_some_ne l x : last_opt l = Some x -> l <> [].
Proof. destruct l; [discriminate|discriminate]. Qed.

Lemma check_hyphens_MK a lab he : MK lab he (check_hyphens false a lab he).
Proof.
  unfold check_hyphens. apply MK_bind.
  { destruct lab as [|f r]; [apply MK_ret|]. destruct (f =? HYPHEN); [|apply MK_ret].
    apply T_mark; [apply marked_cons_mark, marked_refl|reflexivity]. }
  intros l1 h1 _. apply MK_bind.
  { destruct (last_opt l1) as [x|] eqn:El; [|apply MK_ret]. destruct (x =? HYPHEN); [|apply MK_ret].
    apply T_mark; [apply marked_set_last|apply fffd_set_last; exact (last_opt_some_ne _ _ El)]. }
  intros l2 h2 _. destruct a; [apply MK_ret|].
  destruct ((4 <=? len l2) && (nth 2 l2 0 =? HYPHEN) && (nth 3 l2 0 =? HYPHEN)) eqn:E; [|apply MK_ret].
  apply T_mark.
  - exact (marked_trans _ _ _ (marked_set_nth l2 2) (marked_set_nth _ 3)).
  - apply fffd_set_nth. rewrite set_nth_length. apply andb_true_iff in E. destruct E as [E _].
    apply andb_true_iff in E. destruct E as [E _]. unfold len in E. lia.
Qed.

Section WithAdapter.
Variable A : adapter.
Variable cfg : bool.

Lemma contextj_MK rest : forall rhead he, MK (rev rhead ++ rest) he (contextj A cfg false rhead rest he).
Proof.
  induction rest as [|c tail IH]; intros rhead he; cbn [contextj].
  - rewrite app_nil_r. apply MK_ret.
  - assert (Hgo : MK (rev rhead ++ c :: tail) he (contextj A cfg false (c :: rhead) tail he)).
    { pose proof (IH (c :: rhead) he) as H. cbn [rev] in H. rewrite <- app_assoc in H. exact H. }
    assert (Hmk : MK (rev rhead ++ c :: tail) he (contextj A cfg false (FFFD :: rhead) tail true)).
    { pose proof (IH (FFFD :: rhead) true) as H. cbn [rev] in H. rewrite <- app_assoc in H. cbn [app] in H.
      eapply MK_after_mark; [| |exact H].
      - apply marked_app; [apply marked_refl|apply marked_cons_mark, marked_refl].
      - rewrite fffd_app. unfold fffd at 2. cbn [existsb]. rewrite is_fffd_FFFD. apply orb_true_r. }
    destruct (negb (in_inclusive_range32 c T_IDNA_JOINER_LO T_IDNA_JOINER_HI)); [exact Hgo|].
    destruct rhead as [|p rh]; [exact Hmk|].
    destruct (is_virama A p); [exact Hgo|].
    destruct (c =? 8205); [exact Hmk|].
    destruct (cfg && negb (c =? 8204)); [exact I|].
    destruct (negb (has_appropriately_joining_char A false (p :: rh)) || negb (has_appropriately_joining_char A true tail));
      [exact Hmk|exact Hgo].
Qed.

Lemma check_label_MK hy lab he fcm ncj : MK lab he (check_label A cfg false hy lab he fcm ncj).
Proof.
  unfold check_label. apply MK_bind.
  { destruct (negb (hy_is_allow hy)); [apply check_hyphens_MK|apply MK_ret]. }
  intros l1 h1 _. apply MK_bind.
  { destruct fcm; [|apply MK_ret]. destruct l1 as [|f r]; [apply MK_ret|].
    destruct (is_mark A f); [|apply MK_ret]. apply T_mark; [apply marked_cons_mark, marked_refl|reflexivity]. }
  intros l2 h2 _. apply MK_bind.
  { destruct ncj; [|apply MK_ret]. exact (contextj_MK l2 [] h2). }
  intros l3 h3 _.
  destruct (negb (is_ascii_l l3) && (PUNYCODE_ENCODE_MAX_INPUT_LENGTH <? len l3)) eqn:E; [|apply MK_ret].
  destruct (len l3 <=? PUNYCODE_ENCODE_MAX_INPUT_LENGTH) eqn:E2; [exact I|].
  apply T_mark; [apply marked_set_nth|]. apply fffd_set_nth. unfold len in E2. lia.
Qed.

(* MK3: MK for the steps of the bidi rule, whose result carries an nstate as third component (ignored) *)
Definition MK3 (lab : list N) (he : bool) (r : step (list N * bool * nstate)) : Prop :=
  match r with SOk (l', he', _) => T lab he l' he' | SExit => False | SPanic _ => True end.
Lemma MK3_keep c r he res : MK3 r he res -> MK3 (c :: r) he (cons3 c res).
Proof. destruct res as [[[l' h'] n]| |s]; cbn [MK3 cons3]; [apply (T_pre [c])|auto|auto]. Qed.
Lemma MK3_mark c r he res : MK3 r true res -> MK3 (c :: r) he (cons3 FFFD res).
Proof.
  destruct res as [[[l' h'] n]| |s]; cbn [MK3 cons3]; [|auto|auto]. intros H.
  pose proof (T_he_mono _ _ _ H) as ->. apply T_mark; [apply marked_cons_mark; exact (proj1 H)|reflexivity].
Qed.
Lemma rtl_middle_MK3 prior : forall ns he, MK3 prior he (rtl_middle A false prior ns he).
Proof.
  induction prior as [|c r IH]; intros ns he; cbn [rtl_middle]; [apply T_refl|].
  destruct (negb (bc_mid_rtl (bidi_class A c))); [apply MK3_mark, IH|].
  destruct ns.
  - apply MK3_keep, IH.
  - destruct (bc_an (bidi_class A c)); [apply MK3_mark, IH|apply MK3_keep, IH].
  - destruct (bc_en (bidi_class A c)); [apply MK3_mark, IH|apply MK3_keep, IH].
Qed.

Lemma T_mid first prior prior' last last' nsms he he1 he2 :
  ((last' = last /\ he1 = he) \/ (last' = FFFD /\ he1 = true)) -> T prior he1 prior' he2 ->
  T (first :: prior ++ last :: nsms) he (first :: prior' ++ last' :: nsms) he2.
Proof.
  intros HL HT.
  assert (T1 : T (first :: prior ++ last :: nsms) he (first :: prior ++ last' :: nsms) he1).
  { destruct HL as [[-> ->]|[-> ->]]; [apply T_refl|].
    apply T_mark.
    - apply marked_cons_keep, marked_app; [apply marked_refl|apply marked_cons_mark, marked_refl].
    - unfold fffd. cbn [existsb]. rewrite existsb_app. cbn [existsb]. rewrite is_fffd_FFFD. rewrite !orb_true_r. reflexivity. }
  apply (T_trans _ _ _ _ _ _ T1). apply (T_pre [first]). apply T_suf. exact HT.
Qed.

Lemma bidi_label_MK label he : MK label he (bidi_label A false label he).
Proof.
  unfold bidi_label. destruct label as [|first tail]; [apply MK_ret|].
  destruct (negb (bc_first (bidi_class A first))); [apply T_mark; [apply marked_cons_mark, marked_refl|reflexivity]|].
  destruct (trim_nsm A tail) as [[[prior last] nsms]|] eqn:Et; [|apply MK_ret].
  apply trim_nsm_spec in Et. subst tail.
  set (c1 := negb (if bc_ltr (bidi_class A first) then bc_last_ltr (bidi_class A last) else bc_last_rtl (bidi_class A last))).
  assert (HL : forall last' he1, (if c1 then SOk (FFFD, true) else SOk (last, he)) = SOk (last', he1) ->
            (last' = last /\ he1 = he) \/ (last' = FFFD /\ he1 = true)).
  { intros last' he1. destruct c1; intros H; inversion H; [right|left]; split; reflexivity. }
  destruct (if c1 then SOk (FFFD, true) else SOk (last, he)) as [[last' he1]| |s] eqn:E1;
    [|destruct c1; discriminate|destruct c1; discriminate].
  specialize (HL last' he1 eq_refl). cbn [sbind].
  destruct (bc_ltr (bidi_class A first)).
  - pose proof (scan_mark_MK (fun c => negb (bc_mid_ltr (bidi_class A c))) prior he1) as HS.
    destruct (scan_mark false _ prior he1) as [[prior' he2]| |s]; cbn [MK sbind] in *; [|exact HS|exact I].
    exact (T_mid first prior prior' last last' nsms he he1 he2 HL HS).
  - pose proof (rtl_middle_MK3 prior Undecided he1) as HS.
    destruct (rtl_middle A false prior Undecided he1) as [[[prior' he2] ns]| |s]; cbn [MK3 MK sbind] in *; [|exact HS|exact I].
    destruct (match ns with European => bc_an (bidi_class A last) | Arabic => bc_en (bidi_class A last) | Undecided => false end).
    + pose proof (T_mid first prior prior' last last' nsms he he1 he2 HL HS) as T1.
      cbn [MK]. eapply T_trans; [exact T1|]. apply T_mark.
      * apply marked_cons_keep, marked_app; [apply marked_refl|apply marked_cons_mark, marked_refl].
      * unfold fffd. cbn [existsb]. rewrite existsb_app. cbn [existsb]. rewrite is_fffd_FFFD. rewrite !orb_true_r. reflexivity.
    + exact (T_mid first prior prior' last last' nsms he he1 he2 HL HS).
Qed.

Lemma apply_lower_dd_nodot deny c : apply_lower (N.lor deny DOT_MASK) c <> DOT.
Proof.
  unfold apply_lower. destruct (c <? 128) eqn:E1.
  - destruct (N.land (N.lor deny DOT_MASK) (N.shiftl 1 c) =? 0) eqn:E2; [|exact FFFD_not_dot].
    intros Hc. subst c. apply N.eqb_eq in E2. unfold DOT_MASK, DOT in E2.
    change T_IDNA_DOT_MASK with (N.shiftl 1 46) in E2.
    rewrite N.land_lor_distr_l in E2. apply N.lor_eq_0_iff in E2. destruct E2 as [_ E2].
    rewrite N.land_diag in E2. vm_compute in E2. discriminate.
  - intros Hc. subst c. vm_compute in E1. discriminate.
Qed.
Lemma zip_mark_some n : forall l m, zip_mark n l = Some m -> marked n m /\ fffd m = true.
Proof.
  induction n as [|x nr IH]; intros l m H; [cbn [zip_mark] in H; discriminate|].
  destruct l as [|y lr]; [cbn [zip_mark] in H; discriminate|]. cbn [zip_mark] in H. destruct (x =? y).
  - destruct (zip_mark nr lr) as [m0|] eqn:E; [|discriminate]. cbn [option_map] in H. inversion H. subst m.
    destruct (IH _ _ E) as [M F]. split; [apply marked_cons_keep; exact M|].
    unfold fffd in *. cbn [existsb]. rewrite F. apply orb_true_r.
  - inversion H. split; [apply marked_cons_mark, marked_refl|reflexivity].
Qed.

(* APD: the postcondition of after_punycode_decode, which replaces the label: no early return; the text returned has
   no dot and had_errors' = had_errors || (it contains U+FFFD) *)
Definition APD (he : bool) (r : lstep) : Prop :=
  match r with SOk (l', he') => nodot l' /\ he' = he || fffd l' | SExit => False | SPanic _ => True end.
Lemma apd_mark deny lb he : APD he (after_punycode_decode A false (N.lor deny DOT_MASK) lb he).
Proof.
  unfold after_punycode_decode. rewrite scan_mark_fffd_id. cbn [sbind].
  set (X := map (apply_lower (N.lor deny DOT_MASK)) (normalize_validate A lb)).
  assert (HX : nodot X).
  { apply Forall_forall. intros x Hx. apply in_map_iff in Hx. destruct Hx as (c & <- & _). apply apply_lower_dd_nodot. }
  destruct (zip_mark X lb) as [m|] eqn:Ez; cbn [APD].
  - destruct (zip_mark_some _ _ _ Ez) as [M F]. split; [exact (marked_nodot _ _ HX M)|]. rewrite F, orb_true_r. reflexivity.
  - split; [exact HX|reflexivity].
Qed.

(* RP: the postcondition shared by the steps that mark the label (MK implies it, MK_RP) and those that replace it
   (the decode branch of end_sublabel, end_sublabel_RP): no early return; dot-freeness is kept; a U+FFFD in the input
   label leaves one in the output; and if had_errors was set whenever the input label had a U+FFFD, then
   had_errors' = had_errors || (the output label contains U+FFFD) *)
Definition RP (lab : list N) (he : bool) (r : lstep) : Prop :=
  match r with
  | SOk (l', he') => (nodot lab -> nodot l') /\ (fffd lab = true -> fffd l' = true) /\
                     ((fffd lab = true -> he = true) -> he' = he || fffd l')
  | SExit => False
  | SPanic _ => True
  end.
Lemma MK_RP lab he r : MK lab he r -> RP lab he r.
Proof.
  destruct r as [[l' h']| |s]; cbn [MK RP]; auto. intros HT. split; [|split].
  - intros Hn. exact (marked_nodot _ _ Hn (proj1 HT)).
  - intros Hf. exact (marked_fffd _ _ Hf (proj1 HT)).
  - exact (T_exact _ _ _ _ HT).
Qed.

Lemma xn_no_fffd cur : starts_with cur XN_PREFIX = true ->
  existsb (fun c => negb (is_ascii_cp c)) (skipn 4 cur) = false -> fffd cur = false /\ (4 <= length cur)%nat.
Proof.
  unfold XN_PREFIX. intros Hs Hn.
  destruct cur as [|a [|b [|c [|e r]]]]; cbn [starts_with] in Hs; try discriminate;
    try (rewrite !andb_false_r in Hs; discriminate).
  apply andb_true_iff in Hs. destruct Hs as [Ha Hs]. apply andb_true_iff in Hs. destruct Hs as [Hb Hs].
  apply andb_true_iff in Hs. destruct Hs as [Hc Hs]. apply andb_true_iff in Hs. destruct Hs as [He _].
  apply N.eqb_eq in Ha, Hb, Hc, He. subst. cbn [skipn] in Hn. split; [|cbn [length]; lia].
  unfold fffd. cbn [existsb]. change (is_fffd 120) with false. change (is_fffd 110) with false. change (is_fffd 45) with false.
  cbn [orb]. destruct (existsb is_fffd r) eqn:E; [|reflexivity].
  apply existsb_exists in E. destruct E as (x & Hx & Hf).
  pose proof (existsb_false_in _ _ x Hn Hx) as Hq. cbv beta in Hq. unfold is_fffd in Hf. apply N.eqb_eq in Hf. subst x.
  vm_compute in Hq. discriminate.
Qed.

Lemma end_sublabel_RP hy deny cur he fcm ncj :
  RP cur he (end_sublabel A cfg false hy (N.lor deny DOT_MASK) cur he fcm ncj).
Proof.
  unfold end_sublabel. destruct (starts_with cur XN_PREFIX) eqn:Esw; [|apply MK_RP, check_label_MK].
  cbv zeta. remember (existsb (fun c => negb (is_ascii_cp c)) (skipn 4 cur)) as ppf1 eqn:Eppf.
  assert (Hppf : forall cur3 he3, T cur he cur3 he3 -> RP cur he (check_label A cfg false hy cur3 he3 false false)).
  { intros cur3 he3 HT. pose proof (check_label_MK hy cur3 he3 false false) as HC.
    destruct (check_label A cfg false hy cur3 he3 false false) as [[l' h']| |s]; cbn [MK] in HC; [|contradiction|exact I].
    apply (MK_RP cur he (SOk (l', h'))). cbn [MK]. exact (T_trans _ _ _ _ _ _ HT HC). }
  pose proof (scan_mark_MK (fun c => negb (is_ascii_cp c)) (skipn 4 cur) he) as HS.
  destruct (scan_mark false (fun c => negb (is_ascii_cp c)) (skipn 4 cur) he) as [[t he1]| |s] eqn:Esc;
    cbn [MK sbind] in *; [|contradiction|exact I].
  assert (T1 : T cur he (firstn 4 cur ++ t) he1).
  { rewrite <- (firstn_skipn 4 cur) at 1. apply T_pre. exact HS. }
  remember (firstn 4 cur ++ t) as cur1 eqn:Ecur1.
  destruct (last_opt cur1) as [lst|] eqn:El; [|exact I].
  destruct (lst =? HYPHEN); cbn [sbind].
  { assert (T2 : T cur he (set_last FFFD cur1) true).
    { eapply T_trans; [exact T1|]. apply T_mark; [apply marked_set_last|apply fffd_set_last; exact (last_opt_some_ne _ _ El)]. }
    destruct (PUNYCODE_DECODE_MAX_INPUT_LENGTH <? len (set_last FFFD cur1) - 4) eqn:Elen; cbn [sbind negb]; apply Hppf; [|exact T2].
    eapply T_trans; [exact T2|]. apply T_mark; [apply marked_set_nth|]. apply fffd_set_nth. unfold len in Elen. lia. }
  destruct (PUNYCODE_DECODE_MAX_INPUT_LENGTH <? len cur1 - 4) eqn:Elen; cbn [sbind].
  { cbn [negb]. apply Hppf. eapply T_trans; [exact T1|]. apply T_mark; [apply marked_set_nth|].
    apply fffd_set_nth. unfold len in Elen. lia. }
  destruct ppf1; cbn [negb]; [apply Hppf; exact T1|].
  (* nothing marked: the decode branch *)
  symmetry in Eppf. rewrite (scan_mark_none false _ _ he Eppf) in Esc. inversion Esc. subst t he1. clear Esc.
  rewrite firstn_skipn in Ecur1. subst cur1.
  destruct (xn_no_fffd cur Esw Eppf) as [Hnf Hl4].
  destruct (decode_with cfg CharInternal (skipn 4 cur)) as [decoded| |s]; [| |exact I].
  - pose proof (apd_mark deny decoded he) as HA.
    destruct (after_punycode_decode A false (N.lor deny DOT_MASK) decoded he) as [[c4 he4]| |s]; cbn [APD sbind] in *; [|contradiction|exact I].
    destruct HA as [Hn4 He4].
    pose proof (check_label_MK hy c4 he4 true true) as HC.
    destruct (check_label A cfg false hy c4 he4 true true) as [[l' h']| |s]; cbn [MK RP] in *; [|contradiction|exact I].
    split; [intros _; exact (marked_nodot _ _ Hn4 (proj1 HC))|]. split; [rewrite Hnf; discriminate|]. intros _.
    destruct HC as [_ [[-> ->]|[-> F]]]; [exact He4|rewrite F, orb_true_r; reflexivity].
  - apply Hppf. apply T_mark; [apply marked_set_nth|apply fffd_set_nth; lia].
Qed.

(* some label of the list contains U+FFFD *)
Definition efffd (ls : list (list N)) : bool := existsb fffd ls.
(* SP: the postcondition of `sublabels` (sublabels_SP) run on n further pieces with current piece cur: no early return;
   domain_buffer grows by n+1 dot-free labels joined by dots, already_punycode by n entries AalOther,
   had_errors' = had_errors || (one of the new labels contains U+FFFD), and a U+FFFD in cur shows in the new labels *)
Definition SP (db : list N) (cur : list N) (he : bool) (ap : list aal) (n : nat) (r : step (list N * bool * list aal)) : Prop :=
  match r with
  | SOk (db', he', ap') => exists labs, length labs = Datatypes.S n /\ db' = db ++ join_dots labs /\
                             ap' = ap ++ repeat AalOther n /\ Forall nodot labs /\ he' = he || efffd labs /\
                             (fffd cur = true -> efffd labs = true)
  | SExit => False
  | SPanic _ => True
  end.

Lemma join_dots_cons2 l x r : join_dots (l :: x :: r) = l ++ DOT :: join_dots (x :: r).
Proof. reflexivity. Qed.

Lemma sublabels_SP hy deny rest : forall s db cur he ap fcm ncj,
  nodot cur -> nodot s -> Forall nodot rest -> (fffd cur = true -> he = true) ->
  SP db cur he ap (length rest) (sublabels A cfg false hy (N.lor deny DOT_MASK) s rest db cur he ap fcm ncj).
Proof.
  induction rest as [|s2 rest IH]; intros s db cur he ap fcm ncj Hnc Hns Hnr HE; cbn [sublabels];
    rewrite scan_mark_fffd_id; cbn [sbind];
    pose proof (end_sublabel_RP hy deny (cur ++ s) (he || existsb is_fffd s) fcm ncj) as HR;
    destruct (end_sublabel A cfg false hy (N.lor deny DOT_MASK) (cur ++ s) (he || existsb is_fffd s) fcm ncj) as [[lab he2]| |p];
    cbn [RP sbind] in *; try contradiction; try exact I;
    destruct HR as (R1 & R2 & R3);
    specialize (R1 (proj2 (nodot_app cur s) (conj Hnc Hns)));
    assert (Hhe2 : he2 = he || fffd lab)
      by (rewrite R3;
          [ destruct (existsb is_fffd s) eqn:Es;
            [ rewrite (R2 ltac:(rewrite fffd_app; unfold fffd at 2; rewrite Es; apply orb_true_r)); rewrite !orb_true_r; reflexivity
            | rewrite orb_false_r; reflexivity ]
          | rewrite fffd_app; intros Hf; apply orb_true_iff in Hf; destruct Hf as [Hf|Hf];
            [ rewrite (HE Hf); reflexivity | unfold fffd in Hf; rewrite Hf; apply orb_true_r ] ]);
    assert (Hcl : fffd cur = true -> fffd lab = true)
      by (intros Hf; apply R2; rewrite fffd_app, Hf; reflexivity).
  - exists [lab]. cbn [length repeat join_dots efffd existsb]. rewrite app_nil_r, orb_false_r.
    repeat split; try assumption; try reflexivity. constructor; [exact R1|constructor].
  - pose proof (Forall_inv Hnr) as Hs2. pose proof (Forall_inv_tail Hnr) as Hr.
    pose proof (IH s2 (db ++ lab ++ [DOT]) [] he2 (ap ++ [AalOther]) true true ltac:(constructor) Hs2 Hr ltac:(discriminate)) as HI.
    destruct (sublabels A cfg false hy (N.lor deny DOT_MASK) s2 rest (db ++ lab ++ [DOT]) [] he2 (ap ++ [AalOther]) true true)
      as [[[db' he'] ap']| |p]; cbn [SP] in *; [|contradiction|exact I].
    destruct HI as (labs & Hlen & Hdb & Hap & Hnl & Hhe & _).
    exists (lab :: labs). cbn [length repeat efffd existsb]. split; [rewrite Hlen; reflexivity|]. split.
    { rewrite Hdb. destruct labs as [|x r]; [discriminate|]. rewrite join_dots_cons2. rewrite <- !app_assoc. reflexivity. }
    split; [rewrite Hap, <- app_assoc; reflexivity|]. split; [constructor; assumption|]. split.
    { rewrite Hhe, Hhe2. unfold efffd. rewrite orb_assoc. reflexivity. }
    intros Hf. rewrite (Hcl Hf). reflexivity.
Qed.

(* es_shape: the entries es that one input label adds to already_punycode: one MixedCaseAscii label (and then
   had_errors' = false), or one MixedCasePunycode label, or one or more AalOther.
   LN: the postcondition of label_nonempty (and of its branches complexT / complexF) on one non-empty input label: no early
   return; domain_buffer grows by the dot-free labels labs (at least one), already_punycode by as many entries es of that
   shape, had_errors' = had_errors || (one of labs contains U+FFFD) *)
Definition es_shape (label : list N) (es : list aal) (he' : bool) : Prop :=
  (es = [MixedCaseAscii label] /\ he' = false) \/ es = [MixedCasePunycode label] \/ exists k, es = AalOther :: repeat AalOther k.
Definition LN (label db : list N) (he : bool) (ap : list aal) (r : step (list N * bool * list aal)) : Prop :=
  match r with
  | SOk (db', he', ap') => exists labs es, length es = length labs /\ labs <> [] /\ db' = db ++ join_dots labs /\
       ap' = ap ++ es /\ Forall nodot labs /\ he' = he || efffd labs /\ es_shape label es he'
  | SExit => False
  | SPanic _ => True
  end.

Lemma apply_upper_nodot deny b : b <> DOT -> apply_upper deny b <> DOT.
Proof.
  intros Hb. unfold apply_upper. destruct (N.land deny (N.shiftl 1 b) =? 0); [exact Hb|].
  destruct (in_inclusive_range8 b 65 90) eqn:E; [|exact FFFD_not_dot].
  intros Hq. unfold DOT in *. assert (b = 14) by lia. subst b. vm_compute in E. discriminate.
Qed.
Lemma map_upper_nodot deny l : nodot l -> nodot (map (apply_upper deny) l).
Proof.
  intros H. apply Forall_forall. intros x Hx. apply in_map_iff in Hx. destruct Hx as (b & <- & Hb).
  unfold nodot in H. rewrite Forall_forall in H. apply apply_upper_nodot. exact (H b Hb).
Qed.
Lemma split1_nodot l : forall h t, split1 DOT l = (h, t) -> nodot h /\ Forall nodot t.
Proof.
  induction l as [|x r IH]; intros h t H; cbn [split1] in H.
  - inversion H. split; constructor.
  - destruct (split1 DOT r) as [h0 t0]. destruct (IH _ _ eq_refl) as [I1 I2]. destruct (x =? DOT) eqn:E; inversion H; subst.
    + split; [constructor|constructor; assumption].
    + split; [constructor; [apply N.eqb_neq; exact E|exact I1]|exact I2].
Qed.
Lemma split_on_nodot l : Forall nodot (split_on DOT l).
Proof. unfold split_on. destruct (split1 DOT l) as [h t] eqn:E. destruct (split1_nodot _ _ _ E). constructor; assumption. Qed.

Lemma complexT_LN hy deny label db he ap ascii : nodot ascii ->
  LN label db he ap (complexT false hy deny label db he ap ascii).
Proof.
  intros Hn. unfold complexT. rewrite scan_mark_fffd_id. cbn [sbind].
  set (cur := map (apply_upper deny) ascii). fold (fffd cur).
  pose proof (map_upper_nodot deny ascii Hn) as Hnc. fold cur in Hnc.
  match goal with |- LN _ _ _ _ (sbind ?r _) =>
    assert (HH : MK cur (he || fffd cur) r) by (destruct (negb (hy_is_allow hy)); [apply check_hyphens_MK|apply MK_ret]);
    destruct r as [[cur0 he0]| |p]; cbn [MK sbind LN] in *; [|contradiction|exact I] end.
  exists [cur0], [if he0 then AalOther else MixedCaseAscii label]. cbn [length join_dots efffd existsb].
  assert (Hhe : he0 = he || fffd cur0).
  { rewrite (T_exact _ _ _ _ HH) by (intros Hf; rewrite Hf; apply orb_true_r).
    destruct (fffd cur) eqn:Ef; [rewrite (marked_fffd _ _ Ef (proj1 HH)), !orb_true_r; reflexivity|rewrite orb_false_r; reflexivity]. }
  repeat split; try reflexivity; try discriminate.
  - constructor; [exact (marked_nodot _ _ Hnc (proj1 HH))|constructor].
  - rewrite orb_false_r. exact Hhe.
  - destruct he0; [right; right; exists 0%nat; reflexivity|left; split; reflexivity].
Qed.

Lemma complexF_LN hy deny label db he ap ascii non_ascii : nodot ascii ->
  LN label db he ap (complexF A cfg false hy deny db he ap ascii non_ascii).
Proof.
  intros Hn. unfold complexF. rewrite scan_mark_fffd_id. cbn [sbind].
  set (cur := map (apply_upper deny) ascii). fold (fffd cur).
  pose proof (map_upper_nodot deny ascii Hn) as Hnc. fold cur in Hnc.
  destruct (split1 DOT (map (apply_lower deny) (map_normalize A (utf8_lossy non_ascii)))) as [s rest] eqn:Es.
  destruct (split1_nodot _ _ _ Es) as [Hs Hr].
  pose proof (sublabels_SP hy deny rest s db cur (he || fffd cur) (ap ++ [AalOther])
                match ascii with [] => true | _ :: _ => false end match non_ascii with [] => false | _ :: _ => true end
                Hnc Hs Hr ltac:(intros Hf; rewrite Hf; apply orb_true_r)) as HS.
  destruct (sublabels A cfg false hy (N.lor deny DOT_MASK) s rest db cur (he || fffd cur) (ap ++ [AalOther]) _ _)
    as [[[db' he'] ap']| |p]; cbn [SP LN] in *; [|contradiction|exact I].
  destruct HS as (labs & Hlen & Hdb & Hap & Hnl & Hhe & Hc).
  exists labs, (AalOther :: repeat AalOther (length rest)). cbn [length]. rewrite repeat_length.
  split; [symmetry; exact Hlen|]. split; [destruct labs; [discriminate|discriminate]|]. split; [exact Hdb|].
  split; [rewrite Hap, <- app_assoc; reflexivity|]. split; [exact Hnl|]. split.
  - rewrite Hhe. destruct (fffd cur) eqn:Ef; [rewrite (Hc eq_refl), !orb_true_r; reflexivity|rewrite orb_false_r; reflexivity].
  - right; right. exists (length rest). reflexivity.
Qed.

Lemma label_nonempty_LN hy deny label db he ap : nodot label ->
  LN label db he ap (label_nonempty A cfg false hy deny label db he ap).
Proof.
  intros Hn. rewrite label_nonempty_eq. destruct (split_ascii_fast_path_prefix label) as [ascii non_ascii] eqn:Es.
  assert (Hna : nodot ascii).
  { rewrite (split_ascii_app _ _ _ Es) in Hn. exact (proj1 (proj1 (nodot_app _ _) Hn)). }
  destruct non_ascii as [|na nr]; [|apply complexF_LN; exact Hna].
  destruct (has_punycode_prefix ascii); [|apply complexT_LN; exact Hna].
  destruct (negb match last_opt ascii with Some l => l =? HYPHEN | None => false end
            && (len ascii - 4 <=? PUNYCODE_DECODE_MAX_INPUT_LENGTH)); [|apply complexF_LN; exact Hna].
  destruct (decode_with cfg U8Internal (skipn 4 ascii)) as [decoded| |p]; [| |exact I].
  - pose proof (apd_mark deny decoded he) as HA.
    destruct (after_punycode_decode A false (N.lor deny DOT_MASK) decoded he) as [[c1 he1]| |p]; cbn [APD sbind] in *; [|contradiction|exact I].
    destruct HA as [Hn1 He1].
    pose proof (check_label_MK hy c1 he1 true true) as HC.
    destruct (check_label A cfg false hy c1 he1 true true) as [[c2 he2']| |p]; cbn [MK sbind LN] in *; [|contradiction|exact I].
    exists [c2], [MixedCasePunycode label]. cbn [length join_dots efffd existsb]. rewrite orb_false_r.
    repeat split; try reflexivity; try discriminate.
    + constructor; [exact (marked_nodot _ _ Hn1 (proj1 HC))|constructor].
    + destruct HC as [_ [[-> ->]|[-> F]]]; [exact He1|rewrite F, orb_true_r; reflexivity].
    + right; left; reflexivity.
  - cbn [LN]. exists [FFFD :: map (apply_upper deny) (tl ascii)], [MixedCasePunycode label].
    cbn [length join_dots efffd existsb fffd]. rewrite is_fffd_FFFD. cbn [orb]. rewrite orb_true_r.
    repeat split; try reflexivity; try discriminate.
    + constructor; [|constructor]. constructor; [exact FFFD_not_dot|]. apply map_upper_nodot.
      destruct ascii; [constructor|]. inversion Hna; assumption.
    + right; left; reflexivity.
Qed.
End WithAdapter.

(* cover ap ls: which input labels ls the entries ap of already_punycode stand for: a MixedCaseAscii / MixedCasePunycode
   entry stands for the label it carries, a run of one or more AalOther for one non-empty input label *)
Inductive cover : list aal -> list (list N) -> Prop :=
| cv_nil : cover [] []
| cv_a l ap ls : cover ap ls -> cover (MixedCaseAscii l :: ap) (l :: ls)
| cv_p l ap ls : l <> [] -> cover ap ls -> cover (MixedCasePunycode l :: ap) (l :: ls)
| cv_o k l ap ls : l <> [] -> cover ap ls -> cover (AalOther :: repeat AalOther k ++ ap) (l :: ls).

Lemma cover_app ap ls : cover ap ls -> forall es ms, cover es ms -> cover (ap ++ es) (ls ++ ms).
Proof.
  induction 1 as [|l ap ls _ IH|l ap ls Hl _ IH|k l ap ls Hl _ IH]; intros es ms Hc; cbn [app].
  - exact Hc.
  - constructor. apply IH. exact Hc.
  - constructor; [exact Hl|]. apply IH. exact Hc.
  - rewrite <- app_assoc. constructor; [exact Hl|]. apply IH. exact Hc.
Qed.
Lemma cover_nil_r ap : cover ap [] -> ap = [].
Proof. intros H. inversion H. reflexivity. Qed.

(* pre_ok: a label of domain_buffer whose already_punycode entry is MixedCaseAscii contains no U+FFFD (labels and entries
   taken pairwise; in particular the two lists have the same length) *)
Definition pre_ok (dbl : list (list N)) (ap : list aal) : Prop :=
  Forall2 (fun lab e => match e with MixedCaseAscii _ => fffd lab = false | _ => True end) dbl ap.
Lemma pre_ok_others labs : forall k, length (repeat AalOther k) = length labs -> pre_ok labs (repeat AalOther k).
Proof.
  induction labs as [|l r IH]; intros k H; destruct k; cbn [repeat length] in *; try discriminate; constructor; [exact I|].
  apply IH. lia.
Qed.
Lemma LN_facts label labs es he he' : es_shape label es he' -> length es = length labs -> he' = he || efffd labs ->
  pre_ok labs es /\ (label <> [] -> cover es [label]).
Proof.
  intros [[-> ->]|[->|(k & ->)]] Hl Hh.
  - destruct labs as [|lab [|x r]]; try discriminate. cbn [efffd existsb] in Hh. split.
    + constructor; [|constructor]. destruct (fffd lab); [rewrite orb_true_r in Hh; discriminate|reflexivity].
    + intros _. constructor. constructor.
  - destruct labs as [|lab [|x r]]; try discriminate. split.
    + constructor; [exact I|constructor].
    + intros Hn. constructor; [exact Hn|constructor].
  - split.
    + apply (pre_ok_others labs (Datatypes.S k)). exact Hl.
    + intros Hn. replace (AalOther :: repeat AalOther k) with (AalOther :: repeat AalOther k ++ []) by (rewrite app_nil_r; reflexivity).
      constructor; [exact Hn|constructor].
Qed.

Lemma join_dots_app dbl labs : dbl <> [] -> labs <> [] -> join_dots (dbl ++ labs) = join_dots dbl ++ DOT :: join_dots labs.
Proof.
  intros Hd Hl. induction dbl as [|x r IH]; [congruence|]. destruct r as [|y r'].
  - cbn [app]. destruct labs; [congruence|]. reflexivity.
  - change ((x :: y :: r') ++ labs) with (x :: (y :: r') ++ labs). cbn [app]. rewrite !join_dots_cons2.
    change (y :: r' ++ labs) with ((y :: r') ++ labs). rewrite IH by discriminate. rewrite <- app_assoc. reflexivity.
Qed.
Lemma efffd_app a b : efffd (a ++ b) = efffd a || efffd b.
Proof. unfold efffd. apply existsb_app. Qed.
Lemma fffd_join ls : fffd (join_dots ls) = efffd ls.
Proof.
  induction ls as [|l r IH]; [reflexivity|]. destruct r as [|x r'].
  - cbn [join_dots efffd existsb]. rewrite orb_false_r. reflexivity.
  - rewrite join_dots_cons2. rewrite fffd_app. unfold fffd at 2. cbn [existsb]. change (is_fffd DOT) with false. cbn [orb].
    fold (fffd (join_dots (x :: r'))). rewrite IH. reflexivity.
Qed.

Section Loop.
Variable A : adapter.
Variable cfg : bool.
Variable d : list N.

(* SInv s todo: the invariant of the label loop of the marking run, state s, input labels todo still to come; P is
   the first passthrough_up_to bytes of the input d.  While in the passed-through prefix (i_inpre): both buffers are
   empty, had_errors is false, d = P ++ the labels to come.  After it: passthrough_up_to < |d|, domain_buffer is the
   dot-free labels dbl joined by dots, pre_ok dbl already_punycode, had_errors = (some label of dbl contains U+FFFD),
   d = P ++ the labels done and to come, and already_punycode covers the labels done.
   SPost: a step does not take the early return and, if it returns, re-establishes SInv *)
Definition SInv (s : ist) (todo : list (list N)) : Prop :=
  exists P, len P = i_ptu s /\
  if i_inpre s then i_db s = [] /\ i_ap s = [] /\ i_he s = false /\ d = P ++ tailtext (i_seen s) todo
  else i_seen s = true /\ i_ptu s < len d /\ exists dbl done, dbl <> [] /\ i_db s = join_dots dbl /\ Forall nodot dbl /\
       pre_ok dbl (i_ap s) /\ i_he s = efffd dbl /\ d = P ++ join_dots (done ++ todo) /\ cover (i_ap s) done.

Definition SPost (todo : list (list N)) (r : step ist) : Prop :=
  match r with SOk s' => SInv s' todo | SExit => False | SPanic _ => True end.

Lemma label_step_SInv hy deny label s todo : nodot label -> SInv s (label :: todo) ->
  SPost todo (label_step A cfg false hy deny label s).
Proof.
  intros Hn (P & HP & H). unfold label_step.
  destruct (i_inpre s && is_passthrough_ascii_label label) eqn:Ec.
  - apply andb_true_iff in Ec. destruct Ec as [Epre _]. rewrite Epre in H. destruct H as (Hdb & Hap & Hhe & Hd).
    cbn [SPost]. unfold SInv. cbn [i_db i_ap i_ptu i_inpre i_seen i_he].
    exists (P ++ (if i_seen s then [DOT] else []) ++ label). split.
    + rewrite !len_app, HP. destruct (i_seen s); unfold len; cbn [length]; lia.
    + repeat split; try assumption. rewrite tailtext_cons in Hd. rewrite <- !app_assoc. exact Hd.
  - destruct (i_inpre s) eqn:Epre.
    + (* the first label that is not passed through *)
      cbn [andb] in Ec. destruct H as (Hdb & Hap & Hhe & Hd). rewrite andb_true_r, andb_false_r.
      destruct label as [|b r]; [discriminate|].
      rewrite tailtext_cons in Hd.
      set (P' := P ++ (if i_seen s then [DOT] else [])).
      assert (HP' : len P' = (if i_seen s then i_ptu s + 1 else i_ptu s)).
      { unfold P'. rewrite len_app, HP. destruct (i_seen s); unfold len; cbn [length]; lia. }
      assert (Hd' : d = P' ++ (b :: r) ++ tailtext true todo).
      { unfold P'. rewrite <- app_assoc. exact Hd. }
      pose proof (label_nonempty_LN A cfg hy deny (b :: r) (i_db s) (i_he s) (i_ap s) Hn) as HL.
      destruct (label_nonempty A cfg false hy deny (b :: r) (i_db s) (i_he s) (i_ap s)) as [[[db1 he1] ap1]| |p];
        cbn [LN sbind SPost] in *; [|contradiction|exact I].
      destruct HL as (labs & es & Hlen & Hne & Hdb1 & Hap1 & Hnl & Hhe1 & Hsh).
      destruct (LN_facts _ _ _ _ _ Hsh Hlen Hhe1) as [Hpo Hcv].
      unfold SInv. cbn [i_db i_ap i_ptu i_inpre i_seen i_he]. exists P'. split; [exact HP'|].
      split; [reflexivity|]. split.
      { rewrite Hd'. rewrite !len_app. rewrite HP'. assert (Hbr : len (b :: r) = len r + 1) by (unfold len; cbn [length]; lia).
        rewrite Hbr. destruct (i_seen s); lia. }
      exists labs, [b :: r]. rewrite Hdb in Hdb1. rewrite Hap in Hap1. rewrite Hhe in Hhe1. cbn [app orb] in *.
      repeat split; try assumption.
      * rewrite Hap1. exact Hpo.
      * rewrite join_dots_cons. exact Hd'.
      * rewrite Hap1. apply Hcv. discriminate.
    + (* inside the processed part *)
      destruct H as (Hseen & Hlt & dbl & done & Hdn & Hdb & Hnd & Hpo & Hhe & Hd & Hcv).
      rewrite Hseen. cbn [andb negb].
      destruct label as [|b r].
      * cbn [SPost]. unfold SInv. cbn [i_db i_ap i_ptu i_inpre i_seen i_he]. exists P. split; [exact HP|].
        split; [reflexivity|]. split; [exact Hlt|]. exists (dbl ++ [[]]), (done ++ [[]]).
        split; [destruct dbl; discriminate|]. split.
        { rewrite join_dots_app by (try assumption; discriminate). rewrite Hdb. reflexivity. }
        split; [apply Forall_app; split; [exact Hnd|constructor; [constructor|constructor]]|]. split.
        { apply Forall2_app; [exact Hpo|]. constructor; [reflexivity|constructor]. }
        split; [rewrite efffd_app, Hhe; cbn [efffd existsb fffd]; rewrite !orb_false_r; reflexivity|]. split.
        { rewrite <- app_assoc. exact Hd. }
        apply cover_app; [exact Hcv|]. constructor. constructor.
      * pose proof (label_nonempty_LN A cfg hy deny (b :: r) (i_db s ++ [DOT]) (i_he s) (i_ap s) Hn) as HL.
        destruct (label_nonempty A cfg false hy deny (b :: r) (i_db s ++ [DOT]) (i_he s) (i_ap s)) as [[[db1 he1] ap1]| |p];
          cbn [LN sbind SPost] in *; [|contradiction|exact I].
        destruct HL as (labs & es & Hlen & Hne & Hdb1 & Hap1 & Hnl & Hhe1 & Hsh).
        destruct (LN_facts _ _ _ _ _ Hsh Hlen Hhe1) as [Hpo1 Hcv1].
        unfold SInv. cbn [i_db i_ap i_ptu i_inpre i_seen i_he]. exists P. split; [exact HP|].
        split; [reflexivity|]. split; [exact Hlt|]. exists (dbl ++ labs), (done ++ [b :: r]).
        split; [destruct dbl; [congruence|discriminate]|]. split.
        { rewrite join_dots_app by assumption. rewrite Hdb1, Hdb, <- app_assoc. reflexivity. }
        split; [apply Forall_app; split; assumption|]. split.
        { rewrite Hap1. apply Forall2_app; assumption. }
        split; [rewrite efffd_app, <- Hhe; exact Hhe1|]. split.
        { rewrite <- app_assoc. exact Hd. }
        rewrite Hap1. apply cover_app; [exact Hcv|]. apply Hcv1. discriminate.
Qed.

Lemma labels_loop_SInv hy deny labels : Forall nodot labels -> forall s, SInv s labels ->
  SPost [] (labels_loop A cfg false hy deny labels s).
Proof.
  induction labels as [|l r IH]; intros Hn s HS; cbn [labels_loop]; [exact HS|].
  pose proof (label_step_SInv hy deny l s r (Forall_inv Hn) HS) as H1.
  destruct (label_step A cfg false hy deny l s) as [s1| |p]; cbn [SPost sbind] in *; [|contradiction|exact I].
  exact (IH (Forall_inv_tail Hn) s1 H1).
Qed.
End Loop.

(* split_on / join_dots on dot-free labels *)
Lemma split1_nodot_id l : nodot l -> split1 DOT l = (l, []).
Proof.
  induction l as [|x r IH]; intros H; cbn [split1]; [reflexivity|]. inversion H as [|? ? Hx Hr]; subst.
  rewrite (IH Hr). replace (x =? DOT) with false by (symmetry; apply N.eqb_neq; exact Hx). reflexivity.
Qed.
Lemma split1_app_dot l r : nodot l -> split1 DOT (l ++ DOT :: r) = (l, fst (split1 DOT r) :: snd (split1 DOT r)).
Proof.
  induction l as [|x l' IH]; intros H; cbn [app split1].
  - destruct (split1 DOT r) as [h t]. rewrite N.eqb_refl. reflexivity.
  - inversion H as [|? ? Hx Hr]; subst. rewrite (IH Hr).
    replace (x =? DOT) with false by (symmetry; apply N.eqb_neq; exact Hx). reflexivity.
Qed.
Lemma split_join ls : ls <> [] -> Forall nodot ls -> split_on DOT (join_dots ls) = ls.
Proof.
  induction ls as [|l r IH]; [congruence|]. intros _ H. inversion H as [|? ? Hl Hr]; subst. destruct r as [|x r'].
  - cbn [join_dots]. unfold split_on. rewrite (split1_nodot_id l Hl). reflexivity.
  - rewrite join_dots_cons2. unfold split_on. rewrite (split1_app_dot l _ Hl).
    specialize (IH ltac:(discriminate) Hr). unfold split_on in IH.
    destruct (split1 DOT (join_dots (x :: r'))) as [h t]. cbn [fst snd]. rewrite IH. reflexivity.
Qed.
Lemma fast_tier_suffix iter mrls t : fast_tier iter mrls = Some t -> t = mrls \/ exists pre, iter = pre ++ t.
Proof.
  intros H. destruct (fast_tier_split iter mrls t H) as [->|(pre & -> & _)]; [left; reflexivity|].
  right. exists (pre ++ [DOT]). rewrite <- app_assoc. reflexivity.
Qed.

Section Final.
Variable A : adapter.
Variable cfg : bool.

(* BLP: the postcondition of the bidi pass bidi_labels over the labels of domain_buffer: no early return; every label is
   only marked; if had_errors was set whenever some label had a U+FFFD, then had_errors' = had_errors || (some label
   returned contains U+FFFD) *)
Definition BLP (labels : list (list N)) (he : bool) (r : step (list (list N) * bool)) : Prop :=
  match r with
  | SOk (ls, he') => Forall2 marked labels ls /\ ((efffd labels = true -> he = true) -> he' = he || efffd ls)
  | SExit => False
  | SPanic _ => True
  end.
Lemma bidi_labels_BLP labels : forall he, BLP labels he (bidi_labels A false labels he).
Proof.
  induction labels as [|l r IH]; intros he; cbn [bidi_labels].
  - cbn [BLP]. split; [constructor|]. intros _. cbn [efffd existsb]. rewrite orb_false_r. reflexivity.
  - pose proof (bidi_label_MK A l he) as HM.
    destruct (bidi_label A false l he) as [[l' he1]| |p]; cbn [MK sbind BLP] in *; [|contradiction|exact I].
    pose proof (IH he1) as HI.
    destruct (bidi_labels A false r he1) as [[r' he2x]| |p]; cbn [sbind BLP] in *; [|contradiction|exact I].
    destruct HI as [HI1 HI2]. split; [constructor; [exact (proj1 HM)|exact HI1]|]. intros E. cbn [efffd existsb] in *.
    assert (H1 : he1 = he || fffd l').
    { apply (T_exact _ _ _ _ HM). intros Hf. apply E. apply orb_true_iff; left; exact Hf. }
    rewrite HI2.
    + rewrite H1. rewrite orb_assoc. reflexivity.
    + intros Hf. rewrite H1. rewrite E by (apply orb_true_iff; right; exact Hf). reflexivity.
Qed.

Lemma marked_all_nodot ls ls' : Forall nodot ls -> Forall2 marked ls ls' -> Forall nodot ls'.
Proof.
  intros Hn H. induction H as [|a b ls ls' Hab _ IH]; [constructor|].
  constructor; [exact (marked_nodot _ _ (Forall_inv Hn) Hab)|exact (IH (Forall_inv_tail Hn))].
Qed.
Lemma marked_all_fffd ls ls' : Forall2 marked ls ls' -> efffd ls = true -> efffd ls' = true.
Proof.
  intros H. induction H as [|a b ls ls' Hab _ IH]; [discriminate|]. cbn [efffd existsb]. intros Hf.
  apply orb_true_iff in Hf. destruct Hf as [Hf|Hf]; [rewrite (marked_fffd _ _ Hf Hab); reflexivity|].
  unfold efffd in IH. rewrite (IH Hf). apply orb_true_r.
Qed.
Lemma Forall2_len {X Y} (R : X -> Y -> Prop) a b : Forall2 R a b -> length a = length b.
Proof. induction 1; cbn [length]; [reflexivity|f_equal; assumption]. Qed.

(* FInv: what the marking run of process_inner returns: either all of d was passed through (no error), or
   passthrough_up_to < |d|, domain_buffer splits at dots into the dot-free labels dbl, had_errors = (dbl contains U+FFFD)
   (stated for dbl and for domain_buffer), one already_punycode entry per label, pre_ok when the flag is_bidi
   returned is false, and
   d = P ++ the input labels covered by already_punycode with |P| = passthrough_up_to *)
Definition FInv (d : list N) (r : inner_res) : Prop :=
  match r with
  | IPanic _ => True
  | IRes ptu bidi he db ap =>
      (ptu = len d /\ he = false) \/
      (ptu < len d /\ exists dbl, dbl <> [] /\ split_on DOT db = dbl /\ Forall nodot dbl /\ he = efffd dbl /\ he = fffd db /\
         length dbl = length ap /\ (bidi = false -> pre_ok dbl ap) /\
         exists P rl, d = P ++ join_dots rl /\ len P = ptu /\ cover ap rl)
  end.

Lemma process_innermost_FInv hy deny d pre tail : d = pre ++ tail ->
  FInv d (process_innermost A cfg false hy deny d tail).
Proof.
  intros Hd. unfold process_innermost.
  set (s0 := {| i_ptu := len d - len tail; i_seen := false; i_inpre := true; i_db := []; i_he := false; i_ap := [] |}).
  assert (H0 : SInv d s0 (split_on DOT tail)).
  { exists pre. unfold s0. cbn [i_db i_ap i_ptu i_inpre i_seen i_he]. split; [rewrite Hd, len_app; lia|].
    repeat split. cbn [tailtext]. rewrite join_split. exact Hd. }
  pose proof (labels_loop_SInv A cfg d hy deny (split_on DOT tail) (split_on_nodot tail) s0 H0) as HL.
  destruct (labels_loop A cfg false hy deny (split_on DOT tail) s0) as [s| |p]; cbn [SPost] in HL; [|contradiction|exact I].
  destruct HL as (P & HP & H). destruct (i_inpre s).
  - destruct H as (Hdb & Hap & Hhe & Hdd). rewrite Hdb. cbn [is_bidi]. cbn [FInv]. left.
    split; [|exact Hhe]. rewrite Hdd, <- HP. destruct (i_seen s); cbn [tailtext]; rewrite app_nil_r; reflexivity.
  - destruct H as (Hseen & Hlt & dbl & done & Hdn & Hdb & Hnd & Hpo & Hhe & Hdd & Hcv).
    rewrite app_nil_r in Hdd.
    destruct (is_bidi A cfg (i_db s)) as [[|]| |p]; try exact I.
    + pose proof (bidi_labels_BLP (split_on DOT (i_db s)) (i_he s)) as HB.
      destruct (bidi_labels A false (split_on DOT (i_db s)) (i_he s)) as [[ls he']| |p]; cbn [BLP] in HB; [|contradiction|exact I].
      rewrite Hdb, (split_join dbl Hdn Hnd) in HB. destruct HB as [HM HE].
      assert (Hls : ls <> []) by (intros ->; inversion HM; subst; congruence).
      pose proof (marked_all_nodot _ _ Hnd HM) as Hnl.
      cbn [FInv]. right. split; [exact Hlt|]. exists ls.
      assert (Hhe' : he' = efffd ls).
      { rewrite HE by (intros Hq; rewrite Hhe; exact Hq). rewrite Hhe.
        destruct (efffd dbl) eqn:Ed; [rewrite (marked_all_fffd _ _ HM Ed); reflexivity|reflexivity]. }
      split; [exact Hls|]. split; [exact (split_join ls Hls Hnl)|]. split; [exact Hnl|]. split; [exact Hhe'|].
      split; [rewrite fffd_join; exact Hhe'|]. split; [rewrite <- (Forall2_len _ _ _ HM); exact (Forall2_len _ _ _ Hpo)|].
      split; [discriminate|]. exists P, done. repeat split; assumption.
    + cbn [FInv]. right. split; [exact Hlt|]. exists dbl.
      split; [exact Hdn|]. split; [rewrite Hdb; exact (split_join dbl Hdn Hnd)|]. split; [exact Hnd|]. split; [exact Hhe|].
      split; [rewrite Hdb, fffd_join; exact Hhe|]. split; [exact (Forall2_len _ _ _ Hpo)|].
      split; [intros _; exact Hpo|]. exists P, done. repeat split; assumption.
Qed.

Theorem process_inner_FInv hy deny d : FInv d (process_inner A cfg false hy deny d).
Proof.
  unfold process_inner. destruct (fast_tier d d) as [tail|] eqn:Ef.
  - destruct (fast_tier_suffix d d tail Ef) as [->|(pre & Hd)].
    + apply (process_innermost_FInv hy deny d [] d). reflexivity.
    + apply (process_innermost_FInv hy deny d pre tail). exact Hd.
  - cbn [FInv]. left. split; reflexivity.
Qed.

(* consequence: the debug assertion of uts46.rs line 789 (had_errors == domain_buffer contains U+FFFD) cannot fire *)
Corollary mark_he_exact hy deny d ptu bd he db ap :
  process_inner A cfg false hy deny d = IRes ptu bd he db ap -> ptu <> len d -> he = existsb is_fffd db.
Proof.
  intros H Hn. pose proof (process_inner_FInv hy deny d) as HF. rewrite H in HF. cbn [FInv] in HF.
  destruct HF as [[E _]|(_ & dbl & _ & _ & _ & _ & Hx & _)]; [contradiction|exact Hx].
Qed.
End Final.
