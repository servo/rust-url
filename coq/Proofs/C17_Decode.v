(* Proofs/C17_Decode.v - DataUrl::decode_to_vec in closed form, from C18's theorems: the body is
   body_ref (the text up to the first '#', ASCII tab / newlines dropped, %XY decoded when the two hex
   digits follow the '%' directly), base64 bodies are its Infra forgiving-base64 decode; the fragment
   is what follows the first '#'.  The slice-panic branch of the body decoders is never taken. *)
From RU Require Import Base.Prelude Model.Base64 Model.DataUrl Spec.Infra
  Proofs.C18_Machine Proofs.C18_Body Proofs.C18_Spec Proofs.C18_BodyRef.

(* dwo_vec / dwb_vec: decode_without_base64 / decode_with_base64 writing into a Vec, in closed form *)
Lemma dwo_vec body :
  decode_without_base64 vec_write [] body = (fst (body_ref body), BodyOk (snd (body_ref body))).
Proof.
  rewrite dwo_exec. unfold execb. rewrite attempt_vec. cbn [app].
  destruct (dwo_output_is_ref body) as [H1 H2]. rewrite H1, H2. reflexivity.
Qed.

Lemma dwb_vec body :
  decode_with_base64 vec_write [] body =
  match Model.Base64.decode_to_vec (fst (body_ref body)) with
  | inl v => (v, BodyOk (snd (body_ref body)))
  | inr e => (concat (fst (prun (fst (body_ref body)))), BodyErr (InvalidBase64 e))
  end.
Proof.
  destruct (dwb_is_run vec_write [] body) as [f [Hf H]]. rewrite H. clear H.
  destruct (dwo_output_is_ref body) as [H1 H2]. rewrite H2 in Hf. inversion Hf; subst f. rewrite H1.
  set (input := fst (body_ref body)).
  rewrite run_exec. unfold exec. rewrite attempt_vec. cbn [app].
  rewrite decode_to_vec_prun. destruct (snd (prun input)) as [e|]; reflexivity.
Qed.

Definition decoded_ref (base64 : bool) (body : list N) : decoded :=
  let (out, fragment) := body_ref body in
  if base64 then
    match Model.Base64.decode_to_vec out with
    | inl v => DecOk v fragment
    | inr e => DecInvalidBase64 e
    end
  else DecOk out fragment.

Theorem decode_to_vec_ref u :
  DataUrl.decode_to_vec u = decoded_ref (du_base64 u) (du_encoded_body_plus_fragment u).
Proof.
  unfold DataUrl.decode_to_vec, decoded_ref, data_url_decode.
  destruct (du_base64 u).
  - rewrite dwb_vec. destruct (body_ref (du_encoded_body_plus_fragment u)) as [out f]. cbn [fst snd].
    destruct (Model.Base64.decode_to_vec out); reflexivity.
  - rewrite dwo_vec. destruct (body_ref (du_encoded_body_plus_fragment u)) as [out f]. reflexivity.
Qed.

Lemma decode_to_vec_no_panic u : DataUrl.decode_to_vec u <> DecPanic.
Proof.
  rewrite decode_to_vec_ref. unfold decoded_ref.
  destruct (body_ref _) as [out f]. destruct (du_base64 u); [destruct (Model.Base64.decode_to_vec out)|]; discriminate.
Qed.

(* decoded_ref where the Infra Standard's forgiving-base64 decode succeeds: the result is that decode
   (C18_Spec.decode_to_vec_is_infra); where it fails, the crate's error value is kept *)
Theorem decoded_ref_infra base64 body :
  decoded_ref base64 body =
  let (out, fragment) := body_ref body in
  if base64 then
    match forgiving_base64_decode out with
    | Some v => DecOk v fragment
    | None => match Model.Base64.decode_to_vec out with inr e => DecInvalidBase64 e | inl v => DecOk v fragment end
    end
  else DecOk out fragment.
Proof.
  unfold decoded_ref. destruct (body_ref body) as [out f]. destruct base64; [|reflexivity].
  rewrite <- (decode_to_vec_is_infra out). destruct (Model.Base64.decode_to_vec out); reflexivity.
Qed.
