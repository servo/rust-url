(* Proofs/C02_JoinAbs.v - joins whose reference carries its own scheme (G1, second part).
   A reference with a non-special scheme, or with a special non-file scheme that is not the scheme of the base or is
   followed by two or more slashes / back-slashes, never consults the base: parser.rs goes to parse_non_special /
   after_double_slash exactly as without base.  So the join is the parse without base, and parse_Canon applies:
   the result is canonical whatever the base record is (no premise on the base at all). *)
From RU Require Import Base.Prelude Model.HostT Model.UrlRecord Model.Parser Proofs.C02_AuthParts
  Proofs.C02_AuthMain Proofs.C02_Canon.
Open Scope N_scope.
Open Scope list_scope.

(* the references covered: own scheme, not file; special scheme: other than the base's, or >= 2 slashes follow *)
Definition abs_ref (b : url) (input : list N) : bool :=
  match parse_scheme CUrlParser (input_new_trim_c0 input) with
  | Some (sch, rem) =>
      match scheme_type_of sch with
      | STFile => false
      | STNotSpecial => true
      | STSpecialNotFile =>
          negb ((fst (inp_count_matching is_slash_or_bslash rem) <? 2) && list_eqb (b_scheme b) sch)
      end
  | None => false
  end.

Lemma abs_ref_nonfile b input : abs_ref b input = true -> nonfile_input input = true.
Proof.
  unfold abs_ref, nonfile_input. destruct (parse_scheme CUrlParser (input_new_trim_c0 input)) as [[sch rem]|]; [|discriminate].
  destruct (scheme_type_of sch); [discriminate | reflexivity | reflexivity].
Qed.

(* the base is not consulted *)
Theorem join_abs_eq dbg hp hpo hd ovr b input : abs_ref b input = true ->
  parse_url dbg hp hpo hd ovr (Some b) input = parse_url dbg hp hpo hd ovr None input.
Proof.
  unfold abs_ref, parse_url. destruct (parse_scheme CUrlParser (input_new_trim_c0 input)) as [[sch rem]|]; [|discriminate].
  unfold parse_with_scheme. destruct (to_u32 (nlen sch)) as [se| |]; cbn [pbind]; try reflexivity.
  destruct (scheme_type_of sch); [discriminate | | reflexivity].
  destruct (inp_count_matching is_slash_or_bslash rem) as [sl rm]. cbn [fst]. intros H. apply negb_true_iff in H.
  rewrite H. reflexivity.
Qed.

Section JoinAbs.
Variable dbg : bool.
Variable hp hpo : list N -> result host.
Variable hd : host -> list N.
Hypothesis HRT : HostRT hp hpo hd.

(* the result of such a join is canonical, for EVERY base record *)
Theorem join_abs_Canon ovr b input u : host_above hp hpo hd -> usv_list input -> abs_ref b input = true ->
  (ovr = None \/ special_input input = false) ->
  parse_url dbg hp hpo hd ovr (Some b) input = POk u -> Canon hp hpo hd u.
Proof.
  intros HAb Hu Ha Hov Hp. rewrite (join_abs_eq dbg hp hpo hd ovr b input Ha) in Hp.
  exact (parse_Canon dbg hp hpo hd HRT ovr input u HAb Hu (abs_ref_nonfile b input Ha) Hov Hp).
Qed.
End JoinAbs.
