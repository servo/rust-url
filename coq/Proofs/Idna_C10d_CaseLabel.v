(* Proofs/Idna_C10d_CaseLabel.v - ASCII case variants, one input label (C10, case-insensitivity).
   cv l l' = the two byte strings are equal up to the case of ASCII letters (ascii_case_variant).
   - utf8_lossy, split_ascii_fast_path_prefix, has_punycode_prefix, the u8 Punycode decoder and the deny-list
     mapping of an ASCII label do not see the difference;
   - label_nonempty is uniform in the buffer and the already_punycode vector it appends to (label_nonempty_unif);
   - label_nonempty on a case variant returns the same buffer text and the same flag, with the entries
     MixedCaseAscii / MixedCasePunycode relabelled (label_nonempty_case) - both error modes, every had_errors.
   Adapter premise: ok_case only (map_normalize does not see the case of ASCII letters). *)
From RU Require Import Base.Prelude Base.Utf8 Base.U32_c13 Gen.Tables Model.Punycode Model.Uts46
  Proofs.Idna_Sim Proofs.Idna_Api Proofs.Idna_Known Proofs.Idna_Hyp Proofs.Idna_Redisc
  Proofs.Idna_C10_Deny Proofs.Idna_C10_Prefix Proofs.Idna_C10_Inner Proofs.Idna_C10_Walk
  Proofs.Idna_C10b_AsciiInner Proofs.Idna_C10b_AsciiWalk Proofs.Idna_WalkInv Proofs.Idna_WalkEnc Proofs.Idna_C10c_Puny Proofs.Idna_Mark.

Definition lw (x y : N) : Prop := to_lower x = to_lower y.
(* cv is ascii_case_variant of Proofs/Idna_Hyp.v under a short name (same body, convertible) *)
Definition cv (l l' : list N) : Prop := map to_lower l = map to_lower l'.

Lemma cv_F2 l l' : cv l l' <-> Forall2 lw l l'.
Proof.
  unfold cv. split.
  - revert l'. induction l as [|x r IH]; intros [|y r'] H; try discriminate; [constructor|].
    cbn [map] in H. inversion H. constructor; [assumption|apply IH; assumption].
  - induction 1 as [|x y r r' Hxy _ IH]; [reflexivity|]. cbn [map]. unfold lw in Hxy. rewrite Hxy, IH. reflexivity.
Qed.
Lemma cv_refl l : cv l l.
Proof. reflexivity. Qed.
Lemma cv_sym l l' : cv l l' -> cv l' l.
Proof. unfold cv. intros H. symmetry. exact H. Qed.
Lemma cv_len l l' : cv l l' -> length l = length l'.
Proof. intros H. apply (f_equal (@length N)) in H. rewrite !map_length in H. exact H. Qed.
Lemma cv_nil l : cv [] l -> l = [].
Proof. intros H. apply cv_len in H. destruct l; [reflexivity|discriminate]. Qed.
Lemma cv_firstn n l l' : cv l l' -> cv (firstn n l) (firstn n l').
Proof. unfold cv. intros H. rewrite <- !firstn_map, H. reflexivity. Qed.
Lemma cv_skipn n l l' : cv l l' -> cv (skipn n l) (skipn n l').
Proof. unfold cv. intros H. rewrite <- !skipn_map, H. reflexivity. Qed.
Lemma cv_lower l : cv (map to_lower l) l.
Proof. unfold cv. apply lower_lower. Qed.

Lemma lw_cases x y : lw x y -> x = y \/ (x < 128 /\ y < 128).
Proof.
  unfold lw, to_lower, is_upper. intros H.
  destruct ((65 <=? x) && (x <=? 90)) eqn:E1; destruct ((65 <=? y) && (y <=? 90)) eqn:E2; lia.
Qed.
Lemma lw_ascii x y : lw x y -> (x <? 128) = (y <? 128).
Proof. intros H. destruct (lw_cases x y H) as [->|[H1 H2]]; [reflexivity|]. apply N.ltb_lt in H1, H2. rewrite H1, H2. reflexivity. Qed.
Lemma lw_byte x y : lw x y -> is_byte x -> is_byte y.
Proof. unfold is_byte. intros H Hx. destruct (lw_cases x y H) as [<-|[H1 H2]]; lia. Qed.

Lemma cv_ascii l l' : cv l l' -> Forall (fun b => b < 128) l -> Forall (fun b => b < 128) l'.
Proof.
  intros H. apply cv_F2 in H. induction H as [|x y r r' Hxy _ IH]; intros Ha; [constructor|].
  inversion Ha as [|? ? Hx Hr]; subst. constructor; [|exact (IH Hr)].
  pose proof (lw_ascii x y Hxy) as E. apply N.ltb_lt in Hx. rewrite Hx in E. symmetry in E. apply N.ltb_lt in E. exact E.
Qed.
Lemma cv_bytes l l' : cv l l' -> bytes l -> bytes l'.
Proof.
  intros H. apply cv_F2 in H. unfold bytes. induction H as [|x y r r' Hxy _ IH]; intros Hb; [constructor|].
  inversion Hb as [|? ? Hx Hr]; subst. constructor; [exact (lw_byte x y Hxy Hx)|exact (IH Hr)].
Qed.
Lemma cv_nodot l l' : cv l l' -> nodot l -> nodot l'.
Proof.
  intros H. apply cv_F2 in H. unfold nodot. induction H as [|x y r r' Hxy _ IH]; intros Hn; [constructor|].
  inversion Hn as [|? ? Hx Hr]; subst. constructor; [|exact (IH Hr)].
  intros E. apply Hx. subst y. unfold lw in Hxy. pose proof (to_lower_dot x) as Hd. rewrite Hxy in Hd.
  change (to_lower DOT) with DOT in Hd. rewrite N.eqb_refl in Hd. symmetry in Hd. apply N.eqb_eq in Hd. exact Hd.
Qed.

Lemma hi_cont x y : lw x y -> is_cont x = is_cont y /\ (is_cont x = true -> x = y).
Proof.
  intros H. destruct (lw_cases x y H) as [->|[H1 H2]]; [split; reflexivity|].
  unfold is_cont. replace (128 <=? x) with false by lia. replace (128 <=? y) with false by lia. split; [reflexivity|discriminate].
Qed.
Lemma hi_ok3 b x y : lw x y -> ok3 b x = ok3 b y /\ (ok3 b x = true -> x = y).
Proof.
  intros H. destruct (lw_cases x y H) as [->|[H1 H2]]; [split; reflexivity|].
  assert (E : forall z, z < 128 -> ok3 b z = false).
  { intros z Hz. unfold ok3, is_cont. replace (160 <=? z) with false by lia. replace (128 <=? z) with false by lia.
    rewrite !andb_false_r. reflexivity. }
  rewrite (E x H1), (E y H2). split; [reflexivity|discriminate].
Qed.
Lemma hi_ok4 b x y : lw x y -> ok4 b x = ok4 b y /\ (ok4 b x = true -> x = y).
Proof.
  intros H. destruct (lw_cases x y H) as [->|[H1 H2]]; [split; reflexivity|].
  assert (E : forall z, z < 128 -> ok4 b z = false).
  { intros z Hz. unfold ok4, is_cont. replace (144 <=? z) with false by lia. replace (128 <=? z) with false by lia.
    rewrite !andb_false_r. reflexivity. }
  rewrite (E x H1), (E y H2). split; [reflexivity|discriminate].
Qed.

Definition item_cp (it : uitem) : N := match it with UCp c _ => c | UBad _ _ => REPLACEMENT end.
Lemma lossy_cons it its : map item_cp (it :: its) = item_cp it :: map item_cp its.
Proof. reflexivity. Qed.

(* the lossy decoder on two spellings: lw relates equal bytes whenever one of them is >= 128, so every multi-byte
   branch of utf8_scan sees the same bytes on both sides and only the one-byte ASCII branch can differ, by case *)
Lemma scan_cv n : forall l l', (length l <= n)%nat -> Forall2 lw l l' ->
  Forall2 lw (map item_cp (utf8_scan l)) (map item_cp (utf8_scan l')).
Proof.
  induction n as [|n IH]; intros l l' Hn H.
  { destruct H; [constructor|cbn [length] in Hn; lia]. }
  destruct H as [|b b' r r' Hb Hr]; [constructor|]. cbn [length] in Hn.
  assert (IHr : forall t t', (length t <= length r)%nat -> Forall2 lw t t' ->
            Forall2 lw (map item_cp (utf8_scan t)) (map item_cp (utf8_scan t'))).
  { intros t t' Ht. apply IH. lia. }
  assert (Bad : forall k tr, Forall2 lw (map item_cp (UBad k tr :: utf8_scan r)) (map item_cp (UBad k tr :: utf8_scan r'))).
  { intros k tr. rewrite !lossy_cons. constructor; [reflexivity|]. apply IHr; [lia|exact Hr]. }
  cbn [utf8_scan]. rewrite <- (lw_ascii b b' Hb).
  destruct (b <? 128) eqn:Eb.
  { rewrite !lossy_cons. constructor; [exact Hb|]. apply IHr; [lia|exact Hr]. }
  assert (b' = b) by (destruct (lw_cases b b' Hb) as [E|[E _]]; [symmetry; exact E|lia]). subst b'.
  destruct ((194 <=? b) && (b <=? 223)).
  { destruct Hr as [|c1 c1' r1 r1' Hc1 Hr1]; [constructor; [reflexivity|constructor]|].
    destruct (hi_cont c1 c1' Hc1) as [E1 E1']. rewrite <- E1. destruct (is_cont c1) eqn:Ec1.
    - rewrite <- (E1' eq_refl). rewrite !lossy_cons. constructor; [reflexivity|]. apply IHr; [cbn [length]; lia|exact Hr1].
    - apply (Bad 1 false). }
  destruct ((224 <=? b) && (b <=? 239)).
  { destruct Hr as [|c1 c1' r1 r1' Hc1 Hr1]; [constructor; [reflexivity|constructor]|].
    destruct (hi_ok3 b c1 c1' Hc1) as [E1 E1']. rewrite <- E1. destruct (ok3 b c1) eqn:Ec1; [|apply (Bad 1 false)].
    rewrite <- (E1' eq_refl).
    assert (Bad1 : forall k tr, Forall2 lw (map item_cp (UBad k tr :: utf8_scan r1)) (map item_cp (UBad k tr :: utf8_scan r1'))).
    { intros k tr. rewrite !lossy_cons. constructor; [reflexivity|]. apply IHr; [cbn [length]; lia|exact Hr1]. }
    destruct Hr1 as [|c2 c2' r2 r2' Hc2 Hr2]; [constructor; [reflexivity|constructor]|].
    destruct (hi_cont c2 c2' Hc2) as [E2 E2']. rewrite <- E2. destruct (is_cont c2) eqn:Ec2; [|apply (Bad1 2 false)].
    rewrite <- (E2' eq_refl). rewrite !lossy_cons. constructor; [reflexivity|]. apply IHr; [cbn [length]; lia|exact Hr2]. }
  destruct ((240 <=? b) && (b <=? 244)); [|apply (Bad 1 false)].
  destruct Hr as [|c1 c1' r1 r1' Hc1 Hr1]; [constructor; [reflexivity|constructor]|].
  destruct (hi_ok4 b c1 c1' Hc1) as [E1 E1']. rewrite <- E1. destruct (ok4 b c1) eqn:Ec1; [|apply (Bad 1 false)].
  rewrite <- (E1' eq_refl).
  assert (Bad1 : forall k tr, Forall2 lw (map item_cp (UBad k tr :: utf8_scan r1)) (map item_cp (UBad k tr :: utf8_scan r1'))).
  { intros k tr. rewrite !lossy_cons. constructor; [reflexivity|]. apply IHr; [cbn [length]; lia|exact Hr1]. }
  destruct Hr1 as [|c2 c2' r2 r2' Hc2 Hr2]; [constructor; [reflexivity|constructor]|].
  destruct (hi_cont c2 c2' Hc2) as [E2 E2']. rewrite <- E2. destruct (is_cont c2) eqn:Ec2; [|apply (Bad1 2 false)].
  rewrite <- (E2' eq_refl).
  assert (Bad2 : forall k tr, Forall2 lw (map item_cp (UBad k tr :: utf8_scan r2)) (map item_cp (UBad k tr :: utf8_scan r2'))).
  { intros k tr. rewrite !lossy_cons. constructor; [reflexivity|]. apply IHr; [cbn [length]; lia|exact Hr2]. }
  destruct Hr2 as [|c3 c3' r3 r3' Hc3 Hr3]; [constructor; [reflexivity|constructor]|].
  destruct (hi_cont c3 c3' Hc3) as [E3 E3']. rewrite <- E3. destruct (is_cont c3) eqn:Ec3; [|apply (Bad2 3 false)].
  rewrite <- (E3' eq_refl). rewrite !lossy_cons. constructor; [reflexivity|]. apply IHr; [cbn [length]; lia|exact Hr3].
Qed.

Theorem utf8_lossy_cv l l' : cv l l' -> cv (utf8_lossy l) (utf8_lossy l').
Proof.
  intros H. apply cv_F2. apply cv_F2 in H. exact (scan_cv (length l) l l' (le_n _) H).
Qed.

Lemma position_cv l l' : cv l l' ->
  position (fun b => negb (is_ascii_cp b)) l' = position (fun b => negb (is_ascii_cp b)) l.
Proof.
  intros H. apply cv_F2 in H. induction H as [|x y r r' Hxy _ IH]; [reflexivity|].
  cbn [position]. unfold is_ascii_cp at 1 3. rewrite <- (lw_ascii x y Hxy), IH. reflexivity.
Qed.
Lemma split_cv l l' a n : cv l l' -> split_ascii_fast_path_prefix l = (a, n) ->
  exists a' n', split_ascii_fast_path_prefix l' = (a', n') /\ cv a a' /\ cv n n'.
Proof.
  intros H. unfold split_ascii_fast_path_prefix. rewrite (position_cv l l' H).
  destruct (position (fun b => negb (is_ascii_cp b)) l) as [[|p]|]; intros E; inversion E; subst.
  - exists [], l'. repeat split. exact H.
  - exists (firstn p l'), (skipn p l'). split; [reflexivity|]. split; [apply cv_firstn|apply cv_skipn]; exact H.
  - exists l', []. repeat split. exact H.
Qed.

Lemma hpp_cv l l' : cv l l' -> Forall (fun b => b < 128) l -> has_punycode_prefix l' = has_punycode_prefix l.
Proof.
  intros H Ha. rewrite <- (hpp_lower l Ha), <- (hpp_lower l' (cv_ascii l l' H Ha)). unfold cv in H. rewrite H. reflexivity.
Qed.
Lemma last_hyphen_cv l l' : cv l l' ->
  match last_opt l' with Some c => c =? HYPHEN | None => false end = match last_opt l with Some c => c =? HYPHEN | None => false end.
Proof.
  intros H. pose proof (last_opt_map to_lower l) as E1. pose proof (last_opt_map to_lower l') as E2. unfold cv in H. rewrite H in E1.
  rewrite E1 in E2. destruct (last_opt l) as [c|], (last_opt l') as [c'|]; cbn [option_map] in E2; try discriminate; [|reflexivity].
  inversion E2 as [E]. change HYPHEN with DELIMITER. rewrite <- (to_lower_delim c), <- (to_lower_delim c'), E. reflexivity.
Qed.
Lemma len_cv l l' : cv l l' -> len l' = len l.
Proof. intros H. unfold len. rewrite (cv_len l l' H). reflexivity. Qed.
Lemma decode_cv cfg l l' : cv l l' -> decode_with cfg U8Internal (skipn 4 l') = decode_with cfg U8Internal (skipn 4 l).
Proof.
  intros H. rewrite <- (decode_u8_lower cfg (skipn 4 l')), <- (decode_u8_lower cfg (skipn 4 l)).
  pose proof (cv_skipn 4 l l' H) as E. unfold cv in E. rewrite E. reflexivity.
Qed.

Section Deny.
Variable deny : N.
Hypothesis HU : DenyUpper deny.
Hypothesis HL : LdhFree deny.
Lemma cmap_cv l l' : cv l l' -> Forall (fun b => b < 128) l -> cmap deny l' = cmap deny l.
Proof.
  intros H Ha. rewrite <- (cmap_of_lower deny HU HL l Ha), <- (cmap_of_lower deny HU HL l' (cv_ascii l l' H Ha)).
  unfold cv in H. rewrite H. reflexivity.
Qed.
End Deny.

(* the label functions are uniform in the buffer and the entry vector they start from: prepending db0 / ap0
   to them before the call is lift3 db0 ap0 after it *)
Definition lift3 (db0 : list N) (ap0 : list aal) (r : step (list N * bool * list aal)) : step (list N * bool * list aal) :=
  match r with SOk (x, h, e) => SOk (db0 ++ x, h, ap0 ++ e) | SExit => SExit | SPanic p => SPanic p end.

Section Unif.
Variable A : adapter.
Variable cfg : bool.

Lemma sublabels_unif ff hy dd db0 ap0 rest : forall s db cur he ap fcm ncj,
  sublabels A cfg ff hy dd s rest (db0 ++ db) cur he (ap0 ++ ap) fcm ncj =
  lift3 db0 ap0 (sublabels A cfg ff hy dd s rest db cur he ap fcm ncj).
Proof.
  induction rest as [|s2 rest IH]; intros s db cur he ap fcm ncj; cbn [sublabels].
  - destruct (scan_mark ff is_fffd s he) as [[s1 h1]| |p]; cbn [sbind lift3]; try reflexivity.
    destruct (end_sublabel A cfg ff hy dd (cur ++ s1) h1 fcm ncj) as [[lab h2]| |p]; cbn [sbind lift3]; try reflexivity.
    rewrite <- app_assoc. reflexivity.
  - destruct (scan_mark ff is_fffd s he) as [[s1 h1]| |p]; cbn [sbind lift3]; try reflexivity.
    destruct (end_sublabel A cfg ff hy dd (cur ++ s1) h1 fcm ncj) as [[lab h2]| |p]; cbn [sbind lift3]; try reflexivity.
    rewrite <- (IH s2 (db ++ lab ++ [DOT]) [] h2 (ap ++ [AalOther]) true true), <- !app_assoc. reflexivity.
Qed.

Lemma complexF_unif ff hy deny db0 ap0 db he ap ascii non_ascii :
  complexF A cfg ff hy deny (db0 ++ db) he (ap0 ++ ap) ascii non_ascii =
  lift3 db0 ap0 (complexF A cfg ff hy deny db he ap ascii non_ascii).
Proof.
  unfold complexF. destruct (scan_mark ff is_fffd (map (apply_upper deny) ascii) he) as [[c1 h1]| |p]; cbn [sbind lift3]; try reflexivity.
  destruct (split1 DOT (map (apply_lower deny) (map_normalize A (utf8_lossy non_ascii)))) as [s rest].
  rewrite <- app_assoc. apply sublabels_unif.
Qed.

Lemma complexT_unif ff hy deny label db0 ap0 db he ap ascii :
  complexT ff hy deny label (db0 ++ db) he (ap0 ++ ap) ascii = lift3 db0 ap0 (complexT ff hy deny label db he ap ascii).
Proof.
  unfold complexT. destruct (scan_mark ff is_fffd (map (apply_upper deny) ascii) he) as [[c1 h1]| |p]; cbn [sbind lift3]; try reflexivity.
  destruct (negb (hy_is_allow hy)).
  - destruct (check_hyphens ff (hy_is_cfl hy) c1 h1) as [[c2 h2]| |p]; cbn [sbind lift3]; try reflexivity.
    rewrite <- !app_assoc. reflexivity.
  - cbn [sbind lift3]. rewrite <- !app_assoc. reflexivity.
Qed.

Theorem label_nonempty_unif ff hy deny label db0 ap0 db he ap :
  label_nonempty A cfg ff hy deny label (db0 ++ db) he (ap0 ++ ap) =
  lift3 db0 ap0 (label_nonempty A cfg ff hy deny label db he ap).
Proof.
  rewrite !(label_nonempty_eq A cfg). destruct (split_ascii_fast_path_prefix label) as [ascii non_ascii].
  destruct non_ascii as [|na nr]; [|apply complexF_unif].
  destruct (has_punycode_prefix ascii); [|apply complexT_unif].
  destruct (negb match last_opt ascii with Some l => l =? HYPHEN | None => false end && (len ascii - 4 <=? PUNYCODE_DECODE_MAX_INPUT_LENGTH)).
  - destruct (decode_with cfg U8Internal (skipn 4 ascii)) as [decoded| |p]; [| |reflexivity].
    + destruct (after_punycode_decode A ff (N.lor deny DOT_MASK) decoded he) as [[c1 h1]| |p]; cbn [sbind lift3]; try reflexivity.
      destruct (check_label A cfg ff hy c1 h1 true true) as [[c2 h2]| |p]; cbn [sbind lift3]; try reflexivity.
      rewrite <- !app_assoc. reflexivity.
    + destruct ff; cbn [lift3]; [reflexivity|]. rewrite <- !app_assoc. reflexivity.
  - destruct ff; [reflexivity|]. apply complexF_unif.
Qed.

Corollary label_nonempty_from_nil ff hy deny label db he ap :
  label_nonempty A cfg ff hy deny label db he ap = lift3 db ap (label_nonempty A cfg ff hy deny label [] he []).
Proof. rewrite <- label_nonempty_unif, !app_nil_r. reflexivity. Qed.
End Unif.

Definition recase (l' : list N) (e : aal) : aal :=
  match e with MixedCaseAscii _ => MixedCaseAscii l' | MixedCasePunycode _ => MixedCasePunycode l' | AalOther => AalOther end.
Definition relab (l' : list N) (r : step (list N * bool * list aal)) : step (list N * bool * list aal) :=
  match r with SOk (x, h, e) => SOk (x, h, map (recase l') e) | SExit => SExit | SPanic p => SPanic p end.

Lemma recase_repeat l' k : map (recase l') (repeat AalOther k) = repeat AalOther k.
Proof. induction k as [|k IH]; [reflexivity|]. cbn [repeat map recase]. rewrite IH. reflexivity. Qed.

Section CaseLabel.
Variable A : adapter.
Variable cfg : bool.
Variable deny : N.
Hypothesis HU : DenyUpper deny.
Hypothesis HL : LdhFree deny.
Hypothesis Hcase : forall l l', ascii_case_variant l l' -> map_normalize A l = map_normalize A l'.

Lemma complexF_cv ff hy db he ap a a' n n' : cv a a' -> cv n n' -> Forall (fun b => b < 128) a ->
  complexF A cfg ff hy deny db he ap a' n' = complexF A cfg ff hy deny db he ap a n.
Proof.
  intros Ha Hn Hasc. unfold complexF. fold (cmap deny a') (cmap deny a). rewrite (cmap_cv deny HU HL a a' Ha Hasc).
  rewrite (Hcase (utf8_lossy n') (utf8_lossy n) (cv_sym _ _ (utf8_lossy_cv n n' Hn))).
  replace (match a' with [] => true | _ :: _ => false end) with (match a with [] => true | _ :: _ => false end)
    by (pose proof (cv_len a a' Ha); destruct a, a'; try discriminate; reflexivity).
  replace (match n' with [] => false | _ :: _ => true end) with (match n with [] => false | _ :: _ => true end)
    by (pose proof (cv_len n n' Hn); destruct n, n'; try discriminate; reflexivity).
  reflexivity.
Qed.

Lemma complexF_relab ff hy he a n l' :
  relab l' (complexF A cfg ff hy deny [] he [] a n) = complexF A cfg ff hy deny [] he [] a n.
Proof.
  destruct (complexF A cfg ff hy deny [] he [] a n) as [[[x h] e]| |p] eqn:E; [|reflexivity|reflexivity].
  cbn [relab]. unfold complexF in E. apply sbind_ok in E. destruct E as ([c1 h1] & _ & E).
  destruct (split1 DOT (map (apply_lower deny) (map_normalize A (utf8_lossy n)))) as [s rest].
  apply (sublabels_ap A cfg) in E. destruct E as (k & ->). cbn [app map recase]. rewrite recase_repeat. reflexivity.
Qed.

Theorem label_nonempty_case ff hy he l l' : cv l l' -> bytes l ->
  label_nonempty A cfg ff hy deny l' [] he [] = relab l' (label_nonempty A cfg ff hy deny l [] he []).
Proof.
  intros H Hb. rewrite !(label_nonempty_eq A cfg).
  destruct (split_ascii_fast_path_prefix l) as [a n] eqn:Es.
  destruct (split_cv l l' a n H Es) as (a' & n' & Es' & Ha & Hn). rewrite Es'.
  pose proof (split_ascii_prefix _ _ _ Es) as Hasc.
  destruct n as [|n0 nr].
  2:{ destruct n' as [|n0' nr']; [apply cv_len in Hn; discriminate|].
      rewrite (complexF_cv ff hy [] he [] a a' _ _ Ha Hn Hasc). symmetry. apply complexF_relab. }
  apply cv_nil in Hn. subst n'.
  pose proof (split_ascii_app _ _ _ Es) as E1. pose proof (split_ascii_app _ _ _ Es') as E2. rewrite app_nil_r in E1, E2. subst a a'.
  rewrite (hpp_cv l l' H Hasc), (last_hyphen_cv l l' H), (len_cv l l' H), (decode_cv cfg l l' H).
  destruct (has_punycode_prefix l).
  - destruct (negb match last_opt l with Some c => c =? HYPHEN | None => false end && (len l - 4 <=? PUNYCODE_DECODE_MAX_INPUT_LENGTH)).
    + destruct (decode_with cfg U8Internal (skipn 4 l)) as [decoded| |p]; [| |reflexivity].
      * destruct (after_punycode_decode A ff (N.lor deny DOT_MASK) decoded he) as [[c1 h1]| |p]; cbn [sbind relab]; try reflexivity.
        destruct (check_label A cfg ff hy c1 h1 true true) as [[c2 h2]| |p]; cbn [sbind relab]; reflexivity.
      * destruct ff; [reflexivity|]. cbn [relab app map recase].
        fold (cmap deny (tl l')) (cmap deny (tl l)).
        assert (Ht : cv (tl l) (tl l')) by (apply (cv_skipn 1 l l') in H; destruct l, l'; exact H).
        assert (Hta : Forall (fun b => b < 128) (tl l)) by (destruct l; [constructor|inversion Hasc; assumption]).
        rewrite (cmap_cv deny HU HL _ _ Ht Hta). reflexivity.
    + destruct ff; [reflexivity|]. rewrite (complexF_cv false hy [] he [] l l' [] [] H (cv_refl []) Hasc). symmetry. apply complexF_relab.
  - unfold complexT. fold (cmap deny l') (cmap deny l). rewrite (cmap_cv deny HU HL l l' H Hasc).
    destruct (scan_mark ff is_fffd (cmap deny l) he) as [[c1 h1]| |p]; cbn [sbind relab]; try reflexivity.
    destruct (negb (hy_is_allow hy)).
    + destruct (check_hyphens ff (hy_is_cfl hy) c1 h1) as [[c2 h2]| |p]; cbn [sbind relab]; try reflexivity.
      destruct h2; reflexivity.
    + cbn [sbind relab]. destruct h1; reflexivity.
Qed.
End CaseLabel.
