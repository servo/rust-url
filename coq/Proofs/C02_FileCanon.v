(* Proofs/C02_FileCanon.v - the fifth canonical form (file records, C02_File.file_ok) as a predicate FileCanon on
   records: every FileCanon record is a fixpoint of re-parsing, well-formed (wf_b, through C03's theorem that every
   parse result is well-formed) and ASCII.  Non-vacuity on the example host functions of C02_AuthMain, and the two
   drive-letter arms of the path loop seen on concrete inputs. *)
From Coq Require Import String.
From RU Require Import Base.Prelude Gen.Tables Model.HostT Model.UrlRecord Model.Parser Model.WF Proofs.C02_Enc
  Proofs.C02_Parts Proofs.C02_Opaque Proofs.C02_Path Proofs.C02_Reach Proofs.C02_AuthParts Proofs.C02_PathSp
  Proofs.C02_AuthMain Proofs.C02_SetQF Proofs.C02_File.
From RU Require Proofs.C03_ReachHost Proofs.C03_ReachFile.
Open Scope N_scope.
Open Scope list_scope.

Section FileCanon.
Variable dbg : bool.
Variable hp hpo : list N -> result host.
Variable hd : host -> list N.
Hypothesis HRT : HostRT hp hpo hd.

Inductive FileCanon : url -> Prop :=
| FileCanon_intro ho segs last q f : file_ok hp hd ho segs last q f ->
    FileCanon (file_curl hd ho (path_text segs last) q f).

Lemma file_ser_ascii ho segs last q f : file_ok hp hd ho segs last q f ->
  ascii (file_ser hd ho (path_text segs last) q f).
Proof.
  intros K. destruct K as [Kh Ksegs Klast Kfirst Kq Kf Kb1 Kbq Kbf].
  unfold file_ser, file_pre, file_front.
  apply ascii_app; split; [apply ascii_app; split; [apply ascii_app; split|]|].
  - apply Forall_forall. intros c Hc. unfold s_file_css, s_file, s_css in Hc. cbn [app In] in Hc. unfold is_ascii.
    repeat (destruct Hc as [<-|Hc]; [lia|]). destruct Hc.
  - destruct ho as [h|]; cbn [fhost_text]; [|constructor]. destruct Kh as (_ & _ & (Ha & _) & _). exact Ha.
  - unfold path_text. constructor; [unfold is_ascii; lia|]. apply ascii_app. split.
    + clear Kfirst Kbq Kbf. induction segs as [|s r IH]; [constructor|].
      cbn [forallb] in Ksegs. apply andb_true_iff in Ksegs. destruct Ksegs as [Hs Hr].
      unfold segs_text. cbn [map concat]. fold (segs_text r). rewrite <- app_assoc. apply ascii_app. split.
      * destruct (good_seg_sp_parts s (fseg_ok_sp s Hs)) as (Hc & _). exact (clean_ascii T_PATH s Hc).
      * constructor; [unfold is_ascii; lia | exact (IH Hr)].
    + destruct (good_seg_sp_parts last (fseg_ok_sp last Klast)) as (Hc & _). exact (clean_ascii T_PATH last Hc).
  - unfold qf_text. apply ascii_app. split.
    + destruct q as [x|]; [|constructor]. cbn [qf_qtext]. constructor; [unfold is_ascii; lia|]. exact (clean_ascii _ x Kq).
    + destruct f as [y|]; [|constructor]. cbn [qf_ftext]. constructor; [unfold is_ascii; lia|]. exact (clean_ascii _ y Kf).
Qed.

Theorem FileCanon_fixpoint u : FileCanon u ->
  Fixpoint_of_reparse dbg hp hpo hd u /\ wf_b u = true /\ ascii (ser u).
Proof.
  intros [ho segs last q f K]. pose proof (file_ser_ascii ho segs last q f K) as A.
  pose proof (reparse_file_form dbg hp hpo hd ho segs last q f K) as R.
  split; [|split].
  - unfold Fixpoint_of_reparse, reparse. unfold file_curl at 1, qf_url at 1. cbn [ser].
    fold (file_ser hd ho (path_text segs last) q f). rewrite utf8_lossy_ascii by exact A. exact R.
  - exact (proj1 (C03_ReachFile.parse_url_wf_all dbg hp hpo hd None (C03_ReachHost.HostRT_HostWf hp hpo hd HRT) None _ _ I R)).
  - exact A.
Qed.

End FileCanon.

(* non-vacuity: file://h.example/a/b%20c?q#f and file:///x on the example host functions *)
Example file_ok_example :
  file_ok ex_hp ex_hd (Some (HDomain (B "h.example"))) [B "a"] (B "b%20c") (Some (B "q")) (Some (B "f"))
  /\ file_ok ex_hp ex_hd None [] (B "x") None None
  /\ list_eqb (ser (file_curl ex_hd (Some (HDomain (B "h.example"))) (path_text [B "a"] (B "b%20c")) (Some (B "q")) (Some (B "f"))))
              (B "file://h.example/a/b%20c?q#f") = true
  /\ list_eqb (ser (file_curl ex_hd None (path_text [] (B "x")) None None)) (B "file:///x") = true.
Proof.
  split; [|split; [|split; vm_compute; reflexivity]].
  - constructor; try (vm_compute; reflexivity); try (vm_compute; discriminate).
    cbn [fhost_ok]. split; [discriminate|]. split; [discriminate|]. split.
    + apply ex_text_ok; [discriminate | vm_compute; reflexivity].
    + repeat split; vm_compute; reflexivity.
  - constructor; try (vm_compute; reflexivity); try (vm_compute; discriminate); exact I.
Qed.

(* the two drive-letter arms of the file path loop: "C|" as first segment is rewritten to "C:" (the host flag is
   cleared); a tab after "c:" makes the loop insert '/' before the next character (F-C01-7) - the results begin with
   a normalised drive letter, the second disjunct of loop_inv_f *)
Example file_loop_drive_arms :
  parse_path_loop true CUrlParser STFile 7 (B "C|/x") (B "file:///") 8 [] true = POk (B "file:///C:/x", false, [])
  /\ parse_path_loop true CUrlParser STFile 7 (9 :: B "x") (B "file:///c:") 8 [] false = POk (B "file:///c:/x", false, [])
  /\ parse_path_loop true CUrlParser STFile 7 (B "a/../C:/../b") (B "file:///") 8 [] false = POk (B "file:///C:/b", false, []).
Proof. vm_compute. repeat split; reflexivity. Qed.
