(* Proofs/C01_EqDots.v - the dot-segment tests of the two sides agree on every byte string:
   parser.rs compares against the spellings "." "%2e" "%2E" / ".." ".%2e" "%2e." "%2e%2e" (either
   case of E), the Standard compares the ASCII-lowercased buffer with the lower-case spellings. *)
From RU Require Import Base.Prelude Model.Parser Spec.Whatwg Proofs.C20_Path.

Definition is_single_dot' (s : list N) : bool :=
  match s with
  | [a] => a =? 46
  | [a; b; c] => is_pct2e a b c
  | _ => false
  end.
Definition is_double_dot' (s : list N) : bool :=
  match s with
  | [a; b] => (a =? 46) && (b =? 46)
  | [a; b; c; d] => ((a =? 46) && is_pct2e b c d) || (is_pct2e a b c && (d =? 46))
  | [a; b; c; d; e; f] => is_pct2e a b c && is_pct2e d e f
  | _ => false
  end.

Lemma is_single_dot_eq s : is_single_dot s = is_single_dot' s.
Proof.
  destruct s as [|a [|b [|c [|d r]]]]; cbn [is_single_dot is_single_dot']; try reflexivity;
    m46 a; try reflexivity; symmetry; apply N.eqb_neq; assumption.
Qed.

Lemma pct2e_46 b c : is_pct2e 46 b c = false.
Proof. reflexivity. Qed.
Lemma pct2e_x46 a c : is_pct2e a 46 c = false.
Proof. unfold is_pct2e. replace (46 =? 50) with false by reflexivity. rewrite andb_false_r. reflexivity. Qed.

Lemma is_double_dot_eq s : is_double_dot s = is_double_dot' s.
Proof.
  destruct s as [|a [|b [|c [|d [|e [|f [|g r]]]]]]]; cbn [is_double_dot is_double_dot']; try reflexivity;
    dmatch; try reflexivity; unfold is_pct2e; lia.
Qed.

(* the Standard's tests in the same explicit form *)
Lemma lower_46 a : (to_lower a =? 46) = (a =? 46).
Proof. unfold to_lower, is_upper. destruct ((65 <=? a) && (a <=? 90)) eqn:E; lia. Qed.
Lemma lower_37 a : (to_lower a =? 37) = (a =? 37).
Proof. unfold to_lower, is_upper. destruct ((65 <=? a) && (a <=? 90)) eqn:E; lia. Qed.
Lemma lower_50 a : (to_lower a =? 50) = (a =? 50).
Proof. unfold to_lower, is_upper. destruct ((65 <=? a) && (a <=? 90)) eqn:E; lia. Qed.
Lemma lower_101 a : (to_lower a =? 101) = ((a =? 101) || (a =? 69)).
Proof. unfold to_lower, is_upper. destruct ((65 <=? a) && (a <=? 90)) eqn:E; lia. Qed.

Lemma list_eqb_sym' a b : list_eqb a b = list_eqb b a.
Proof.
  revert b. induction a as [|x a IH]; intros [|y b]; cbn [list_eqb]; try reflexivity.
  rewrite IH, N.eqb_sym. reflexivity.
Qed.

Ltac lower_norm :=
  cbn [map list_eqb app]; rewrite ?lower_46, ?lower_37, ?lower_50, ?lower_101; unfold is_pct2e.

Lemma is_single_dot_segment_eq s : is_single_dot_segment s = is_single_dot' s.
Proof.
  unfold is_single_dot_segment, ascii_lowercase, str_dot, str_pct2e.
  destruct s as [|a [|b [|c [|d r]]]]; lower_norm; cbn [is_single_dot']; unfold is_pct2e;
    try reflexivity; rewrite ?andb_false_r, ?orb_false_r; cbn [orb andb]; try reflexivity; lia.
Qed.

Lemma is_double_dot_segment_eq s : is_double_dot_segment s = is_double_dot' s.
Proof.
  unfold is_double_dot_segment, ascii_lowercase, str_dot, str_pct2e.
  destruct s as [|a [|b [|c [|d [|e [|f [|g r]]]]]]]; lower_norm; cbn [is_double_dot']; unfold is_pct2e;
    try reflexivity; rewrite ?andb_false_r, ?orb_false_r; cbn [orb andb]; try reflexivity; lia.
Qed.

Theorem single_dot_agree s : is_single_dot s = is_single_dot_segment s.
Proof. rewrite is_single_dot_eq, is_single_dot_segment_eq. reflexivity. Qed.
Theorem double_dot_agree s : is_double_dot s = is_double_dot_segment s.
Proof. rewrite is_double_dot_eq, is_double_dot_segment_eq. reflexivity. Qed.

Theorem dot_segments_agree s :
  is_single_dot s = is_single_dot_segment s /\ is_double_dot s = is_double_dot_segment s.
Proof. split; [apply single_dot_agree | apply double_dot_agree]. Qed.
