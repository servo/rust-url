(* Proofs/C02_HistInst.v - the host hypothesis HostOK2 of C02_Hist.v is met by the host MODEL
   (Model/Host.v: Host::parse with any IDNA function satisfying IdnaOK, Host::parse_opaque, Display), HostOK of
   C02_Reach.v is not; F-C02-9 executed on the linked model. *)
From Coq Require Import String.
From RU Require Import Base.Prelude Base.Utf8 Base.Utf8Facts Model.AsciiSet Gen.Tables Model.PercentEncoding
  Model.HostT Model.Host Model.UrlRecord Model.Parser Model.Setters Model.WF
  Proofs.ListN Proofs.C09_Host Proofs.C09_Inst Proofs.C16_RT6Model
  Proofs.C02_Reach Proofs.C02_AuthParts Proofs.C02_Hist.
Open Scope N_scope.
Open Scope list_scope.

(* HostOK2 holds of the host model for every IDNA function satisfying IdnaOK *)
Theorem HostOK2_model idna : IdnaOK idna -> HostOK2 (host_parse idna) host_parse_opaque host_display.
Proof.
  intros OK. split; [exact (model_HostRT idna OK)|]. split; [exact (model_host_above idna OK)|].
  exact (proj1 (proj2 (proj2 (model_HostOK_C02_true idna OK)))).
Qed.

(* and the premise is satisfiable: idna_clean (identity on ASCII text without denied characters) *)
Example HostOK2_inhabited : HostOK2 (host_parse idna_clean) host_parse_opaque host_display.
Proof. exact (HostOK2_model idna_clean idna_clean_ok). Qed.

(* HostOK is met by NO instance of the host model (both refuting facts of HostOK_old_unsat hold) *)
Theorem HostOK_old_unsat_model idna : ~ HostOK (host_parse idna) host_parse_opaque host_display.
Proof.
  apply HostOK_old_unsat. right. exists 2130706433. split; [reflexivity|].
  exact (proj2 (opaque_ipv4_refuted 2130706433 eq_refl)).
Qed.

Theorem HostOK_old_unsat_model_nil idna : host_parse idna [] <> Ok (HDomain []).
Proof. exact (host_parse_nil_refuted idna). Qed.

(* F-C02-9 on the linked model: a://x/ -> set_ip_host(127.0.0.1) -> a://127.0.0.1/ ; the step is outside
   known_step of C02_Reach.v, inside Known_F_C02_9 (so known_step2 holds), the result has host kind Ipv4 and its text
   re-parses to the same text and offsets with host kind Domain *)
Definition mparse := parse_url true (host_parse idna_clean) host_parse_opaque host_display None None.
Theorem F_C02_9_model :
  match mparse (B "a://x/") with
  | POk u =>
      let o := OSetIpHost (HIpv4 2130706433) in
      negb (known_step true (host_parse idna_clean) host_parse_opaque host_display u o)
      && Known_F_C02_9 u o
      && known_step2 true (host_parse idna_clean) host_parse_opaque host_display u o
      && match apply_op true (host_parse idna_clean) host_parse_opaque host_display u o with
         | Some u' =>
             list_eqb (ser u') (B "a://127.0.0.1/") && hi_eqb (hosti u') (HI_Ipv4 2130706433)
             && match mparse (utf8_lossy (ser u')) with
                | POk v => list_eqb (ser v) (ser u') && hi_eqb (hosti v) HI_Domain && negb (url_eqb v u')
                | _ => false
                end
         | None => false
         end
  | _ => false
  end = true.
Proof. vm_compute. reflexivity. Qed.
