(* Proofs/C13_Dec.v - the decoder's data: the insertion list with index shifting followed by the stable sort
   represents direct list insertion (Rep), and the Decode iterator reads a represented string back.
   Panic sites (here 284, the `loop` of the iterator) are line numbers of idna/src/punycode.rs. *)
From RU Require Import Base.Prelude Base.U32_c13 Model.Punycode Spec.Rfc3492
  Proofs.C13_Enc.

Definition shift1 (i : N) (e : N * N) : N * N := if i <=? fst e then (fst e + 1, snd e) else e.
Definition inc_key (e : N * N) : N * N := (fst e + 1, snd e).

Lemma shift_ins_map i l : shift_ins i l = map (shift1 i) l.
Proof. reflexivity. Qed.

Lemma shift_ins_all i l : (forall e, In e l -> i <= fst e) -> shift_ins i l = map inc_key l.
Proof.
  intros H. rewrite shift_ins_map. apply map_ext_in. intros e He. unfold shift1, inc_key.
  specialize (H e He). replace (i <=? fst e) with true by lia. reflexivity.
Qed.

Lemma insert_head x l : (forall e, In e l -> fst x <= fst e) -> insert_by_key x l = x :: l.
Proof.
  destruct l as [|y r]; intros H; [reflexivity|]. cbn [insert_by_key].
  specialize (H y (or_introl eq_refl)). replace (fst x <=? fst y) with true by lia. reflexivity.
Qed.

Lemma In_insert e x l : In e (insert_by_key x l) <-> e = x \/ In e l.
Proof.
  induction l as [|y r IH]; cbn [insert_by_key].
  - cbn [In]. intuition.
  - destruct (fst x <=? fst y).
    + cbn [In]. intuition.
    + cbn [In]. rewrite IH. intuition.
Qed.

Lemma insert_comm x y l : fst x <> fst y ->
  insert_by_key x (insert_by_key y l) = insert_by_key y (insert_by_key x l).
Proof.
  intros Hne. induction l as [|z r IH].
  - cbn [insert_by_key]. destruct (fst x <=? fst y) eqn:E1; destruct (fst y <=? fst x) eqn:E2; try reflexivity; lia.
  - cbn [insert_by_key].
    destruct (fst y <=? fst z) eqn:Ey; destruct (fst x <=? fst z) eqn:Ex; cbn [insert_by_key]; rewrite ?Ey, ?Ex.
    + destruct (fst x <=? fst y) eqn:E1; destruct (fst y <=? fst x) eqn:E2; try reflexivity; try lia.
    + replace (fst x <=? fst y) with false by lia. reflexivity.
    + replace (fst y <=? fst x) with false by lia. reflexivity.
    + rewrite IH. reflexivity.
Qed.

Lemma sort_snoc l x : (forall y, In y l -> fst y <> fst x) ->
  sort_by_key (l ++ [x]) = insert_by_key x (sort_by_key l).
Proof.
  unfold sort_by_key. induction l as [|y r IH]; intros H; [reflexivity|].
  cbn [app fold_right]. rewrite IH by (intros z Hz; apply H; right; exact Hz).
  apply insert_comm. apply H. left. reflexivity.
Qed.

Lemma insert_shift i x l : insert_by_key (shift1 i x) (map (shift1 i) l) = map (shift1 i) (insert_by_key x l).
Proof.
  induction l as [|y r IH]; [reflexivity|]. cbn [map insert_by_key].
  assert (Hcmp : (fst (shift1 i x) <=? fst (shift1 i y)) = (fst x <=? fst y)).
  { unfold shift1. destruct (i <=? fst x) eqn:E1; destruct (i <=? fst y) eqn:E2; cbn [fst]; lia. }
  rewrite Hcmp. destruct (fst x <=? fst y); [reflexivity|]. cbn [map]. rewrite IH. reflexivity.
Qed.

Lemma sort_shift i l : sort_by_key (shift_ins i l) = shift_ins i (sort_by_key l).
Proof.
  rewrite !shift_ins_map. unfold sort_by_key. induction l as [|y r IH]; [reflexivity|].
  cbn [map fold_right]. rewrite IH. apply insert_shift.
Qed.

Lemma s_insert_at_0 c l : s_insert_at 0 c l = c :: l.
Proof. destruct l; reflexivity. Qed.
Lemma s_insert_at_pos i c x r : i <> 0 -> s_insert_at i c (x :: r) = x :: s_insert_at (i - 1) c r.
Proof. intros H. cbn [s_insert_at]. replace (i =? 0) with false by lia. reflexivity. Qed.
Lemma len_insert_at l : forall i c, len (s_insert_at i c l) = len l + 1.
Proof.
  induction l as [|x r IH]; intros i c; cbn [s_insert_at].
  - destruct (i =? 0); rewrite len_cons, len_nil; lia.
  - destruct (i =? 0); [rewrite !len_cons; lia|]. rewrite !len_cons, IH. lia.
Qed.

(* Rep it base S pos out: the Decode iterator, standing at output index pos with the basic code units base yet to
   come and S what is left of the `insertions` vector of Decoder::decode after sort_by_key ((position, char) pairs),
   yields out.  Rep_ins: the head of S is at pos and is yielded.  Rep_base: every position in S lies beyond pos, so the
   iterator's test `pos == position` fails and the next basic code unit is yielded. *)
Inductive Rep (it : dec_inst) : list N -> list (N * N) -> N -> list N -> Prop :=
| Rep_nil pos : Rep it [] [] pos []
| Rep_base b base S pos out :
    (forall e, In e S -> pos < fst e) -> Rep it base S (pos + 1) out ->
    Rep it (b :: base) S pos (inst_base_char it b :: out)
| Rep_ins c base S pos out :
    Rep it base S (pos + 1) out -> Rep it base ((pos, c) :: S) pos (c :: out).

Lemma collect_eq it ins base position :
  decode_collect it ins base position =
  match ins with
  | (pos, c) :: ins' =>
      if pos =? position then rcons c (decode_collect it ins' base (position + 1))
      else match base with
           | b :: base' => rcons (inst_base_char it b) (decode_collect it ins base' (position + 1))
           | [] => Panic 284
           end
  | [] => match base with
          | b :: base' => rcons (inst_base_char it b) (decode_collect it ins base' (position + 1))
          | [] => Ok []
          end
  end.
Proof. destruct ins as [|[pos c] ins']; destruct base; reflexivity. Qed.

Lemma collect_Rep it base S pos out : Rep it base S pos out -> decode_collect it S base pos = Ok out.
Proof.
  induction 1 as [pos|b base S pos out Hk _ IH|c base S pos out _ IH]; rewrite collect_eq.
  - reflexivity.
  - destruct S as [|[p c] S'].
    + rewrite IH. reflexivity.
    + specialize (Hk (p, c) (or_introl eq_refl)). cbn [fst] in Hk.
      replace (p =? pos) with false by lia. rewrite IH. reflexivity.
  - rewrite N.eqb_refl. rewrite IH. reflexivity.
Qed.

Lemma Rep_keys it base S pos out : Rep it base S pos out -> forall e, In e S -> pos <= fst e.
Proof.
  induction 1 as [pos|b base S pos out Hk _ IH|c base S pos out _ IH]; intros e He.
  - destruct He.
  - specialize (Hk e He). lia.
  - destruct He as [He|He]; [subst e; cbn [fst]; lia|]. specialize (IH e He). lia.
Qed.

Lemma Rep_inc it base S pos out : Rep it base S pos out -> Rep it base (map inc_key S) (pos + 1) out.
Proof.
  induction 1 as [pos|b base S pos out Hk _ IH|c base S pos out _ IH].
  - constructor.
  - constructor; [|exact IH]. intros e He. apply in_map_iff in He. destruct He as [e' [Heq He']]. subst e.
    specialize (Hk e' He'). unfold inc_key. cbn [fst]. lia.
  - cbn [map]. unfold inc_key at 1. cbn [fst snd]. constructor. exact IH.
Qed.

Lemma Rep_base_only it base pos : Rep it base [] pos (map (inst_base_char it) base).
Proof.
  revert pos. induction base as [|b r IH]; intros pos; cbn [map]; constructor; [intros e []|apply IH].
Qed.

Lemma Rep_insert it base S pos out : Rep it base S pos out ->
  forall i c, pos <= i -> i <= pos + len out ->
  Rep it base (insert_by_key (i, c) (shift_ins i S)) pos (s_insert_at (i - pos) c out).
Proof.
  induction 1 as [pos|b base S pos out Hk HR IH|c0 base S pos out HR IH]; intros i c Hlo Hhi.
  - rewrite len_nil in Hhi. assert (i = pos) by lia. subst i.
    replace (pos - pos) with 0 by lia. cbn. constructor. constructor.
  - destruct (N.eq_dec i pos) as [->|Hne].
    + replace (pos - pos) with 0 by lia. rewrite s_insert_at_0.
      rewrite shift_ins_all by (intros e He; specialize (Hk e He); lia).
      rewrite insert_head.
      * constructor. constructor.
        -- intros e He. apply in_map_iff in He. destruct He as [e' [Heq He']]. subst e.
           specialize (Hk e' He'). unfold inc_key. cbn [fst]. lia.
        -- apply Rep_inc. exact HR.
      * intros e He. apply in_map_iff in He. destruct He as [e' [Heq He']]. subst e.
        specialize (Hk e' He'). unfold inc_key. cbn [fst]. lia.
    + rewrite s_insert_at_pos by lia. replace (i - pos - 1) with (i - (pos + 1)) by lia.
      rewrite len_cons in Hhi. constructor.
      * intros e He. apply In_insert in He. destruct He as [->|He]; [cbn [fst]; lia|].
        rewrite shift_ins_map in He. apply in_map_iff in He. destruct He as [e' [Heq He']]. subst e.
        specialize (Hk e' He'). unfold shift1. destruct (i <=? fst e'); cbn [fst]; lia.
      * apply IH; lia.
  - pose proof (Rep_keys _ _ _ _ _ HR) as Hk.
    destruct (N.eq_dec i pos) as [->|Hne].
    + replace (pos - pos) with 0 by lia. rewrite s_insert_at_0.
      rewrite shift_ins_all by (intros e [He|He]; [subst e; cbn [fst]; lia|specialize (Hk e He); lia]).
      cbn [map]. unfold inc_key at 1. cbn [fst snd].
      rewrite insert_head.
      * constructor. constructor. apply Rep_inc. exact HR.
      * intros e [He|He]; [subst e; cbn [fst]; lia|].
        apply in_map_iff in He. destruct He as [e' [Heq He']]. subst e.
        specialize (Hk e' He'). unfold inc_key. cbn [fst]. lia.
    + rewrite s_insert_at_pos by lia. replace (i - pos - 1) with (i - (pos + 1)) by lia.
      rewrite len_cons in Hhi.
      rewrite shift_ins_map. cbn [map]. unfold shift1 at 1. cbn [fst].
      replace (i <=? pos) with false by lia.
      cbn [insert_by_key fst]. replace (i <=? pos) with false by lia.
      constructor. rewrite <- shift_ins_map. apply IH; lia.
Qed.

(* one step of the decoder: shift the recorded positions, push the new pair, sort again *)
Lemma Rep_push it base ins out i c : Rep it base (sort_by_key ins) 0 out -> i <= len out ->
  Rep it base (sort_by_key (shift_ins i ins ++ [(i, c)])) 0 (s_insert_at i c out).
Proof.
  intros HR Hi. rewrite sort_snoc.
  - rewrite sort_shift. rewrite <- (N.sub_0_r i) at 3. apply Rep_insert; [exact HR|lia|lia].
  - intros y Hy. rewrite shift_ins_map in Hy. apply in_map_iff in Hy. destruct Hy as [e [<- _]].
    unfold shift1. destruct (i <=? fst e) eqn:E; cbn [fst]; lia.
Qed.

Lemma dec_loop_cons cfg it byte rest mid previous_i weight k i length code_point bias ins :
  dec_loop cfg it (byte :: rest) mid previous_i weight k i length code_point bias ins =
  match inst_digit it byte with
  | None => Err
  | Some digit =>
    match checked_mul digit weight with
    | None => Err
    | Some product =>
      match checked_add i product with
      | None => Err
      | Some i =>
        let t := threshold k bias in
        if digit <? t then
          match unchecked_add cfg 233 length 1 with
          | Panic s => Panic s
          | Err => Err
          | Ok len1 =>
            match adapt (i - previous_i) len1 (previous_i =? 0) with
            | Panic s => Panic s
            | Err => Err
            | Ok bias =>
              match checked_add code_point (i / len1) with
              | None => Err
              | Some code_point =>
                let i := i mod len1 in
                if is_usvb code_point then
                  dec_loop cfg it rest false (i + 1) 1 BASE (i + 1) len1 code_point bias (shift_ins i ins ++ [(i, code_point)])
                else Err
              end
            end
          end
        else
          match checked_mul weight (BASE - t) with
          | None => Err
          | Some weight => dec_loop cfg it rest true previous_i weight (k + BASE) i length code_point bias ins
          end
      end
    end
  end.
Proof. reflexivity. Qed.

Lemma split_eq p : split_input p = s_split p.
Proof. reflexivity. Qed.

Lemma split_len p base rest : s_split p = (base, rest) -> len base + len rest <= len p.
Proof.
  unfold s_split. destruct (s_rposition p) as [pos|]; intros H;
    apply (f_equal (fun x => len (fst x) + len (snd x))) in H; cbn [fst snd] in H; rewrite <- H; clear H.
  - unfold len. destruct pos as [|pos].
    + change (0 <? 0)%nat with false. cbv iota. rewrite firstn_length. lia.
    + change (0 <? Datatypes.S pos)%nat with true. cbv iota. rewrite firstn_length, skipn_length. lia.
  - rewrite len_nil. lia.
Qed.

Lemma map_base_ext base : map (inst_base_char U8External) base = base.
Proof. induction base as [|b r IH]; [reflexivity|]. cbn [map inst_base_char]. rewrite IH. reflexivity. Qed.

Lemma s_dec_loop_ext d1 d2 (H : forall c, d1 c = d2 c) input : forall mid oldi w k i n bias out,
  s_dec_loop d1 input mid oldi w k i n bias out = s_dec_loop d2 input mid oldi w k i n bias out.
Proof.
  induction input as [|c rest IH]; intros mid oldi w k i n bias out; [reflexivity|].
  cbn [s_dec_loop]. rewrite H. destruct (d2 c) as [digit|]; [|reflexivity].
  cbv zeta. destruct (digit <? s_threshold k bias).
  - destruct (is_usvb _); [apply IH|reflexivity].
  - apply IH.
Qed.
