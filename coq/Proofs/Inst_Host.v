(* Proofs/Inst_Host.v - the URL-level theorems proved for ABSTRACT host functions hp / hpo / hd under
   hypothesis records, instantiated with the host MODEL (Model/Host.v: host_parse idna, host_parse_opaque,
   host_display).  The records are discharged in Proofs/C09_Inst.v; what remains as a premise is IdnaOK idna
   (Proofs/C09_Host.v), the assumption on the IDNA function, and nothing else about hosts.
   IdnaOK holds of idna_clean but not of the IDNA model (model_long_not_IdnaOK, Proofs/C09_LongWit.v); the same theorems
   for the oracle itself, under IdnaOK2 and a clean run, are in Proofs/C09_LongRun.v and C09_Inst2.v. *)
From Coq Require Import String.
From RU Require Import Base.Prelude Base.Utf8 Model.HostT Model.Host Model.UrlRecord Model.Parser Model.Setters
  Model.WF Model.Origin Proofs.C09_Host Proofs.C09_Inst Proofs.C02_Reach Proofs.C02_AuthParts Proofs.C02_AuthMain
  Proofs.C05_Enc Proofs.C05_Parser Proofs.C05_Setters Proofs.C05_History Proofs.C05_Sharp Proofs.C06_Host
  Proofs.C06_Main Proofs.C16_RT6Model.

(* the parser model linked with the host model *)
Definition model_parse (dbg : bool) (idna : list N -> option (list N)) :=
  parse_url dbg (host_parse idna) host_parse_opaque host_display.

(* a value Url::set_ip_host can be given: an Ipv4Addr is a u32, an Ipv6Addr eight u16 *)
Definition ip_value (h : host) : Prop :=
  match h with
  | HIpv4 a => a < 4294967296
  | HIpv6 p => length p = 8%nat /\ Forall (fun x => x < 65536) p
  | HDomain _ => False
  end.

Lemma ip_value_args h : ip_value h <-> op_args_ok (C02_Reach.OSetIpHost h).
Proof. destruct h; cbn; tauto. Qed.

Section Inst.
Variable dbg : bool.
Variable idna : list N -> option (list N).
Hypothesis OK : IdnaOK idna.

Notation hp := (host_parse idna).
Notation hpo := host_parse_opaque.
Notation hd := host_display.

(* every URL parsed without a base whose scheme is not "file" (classes (i)-(iv)) *)
Theorem reparse_nonfile_model input u : usv_list input -> nonfile_input input = true ->
  model_parse dbg idna None None input = POk u ->
  model_parse dbg idna None None (utf8_lossy (ser u)) = POk u /\ wf_b u = true /\ ascii (ser u).
Proof.
  exact (reparse_nonfile dbg hp hpo hd input u (model_HostRT idna OK) (model_host_above idna OK)).
Qed.

(* class (iii): non-special scheme with authority, any encoding override; with the canonical form *)
Theorem reparse_auth_model ovr input u : usv_list input -> auth_input input = true ->
  model_parse dbg idna ovr None input = POk u ->
  model_parse dbg idna None None (utf8_lossy (ser u)) = POk u /\ wf_b u = true
  /\ canon_auth hp hpo hd STNotSpecial u.
Proof.
  intros Hu Hc Hp.
  destruct (L1_auth dbg hp hpo hd (model_HostRT idna OK) ovr input u (model_host_above idna OK) Hu Hc Hp) as (C & W & _).
  split; [exact (L3_auth dbg hp hpo hd (model_HostRT idna OK) u C) | split; assumption].
Qed.

(* class (iv): special non-file scheme; with the canonical form *)
Theorem reparse_special_model input u : usv_list input -> special_input input = true ->
  model_parse dbg idna None None input = POk u ->
  model_parse dbg idna None None (utf8_lossy (ser u)) = POk u /\ wf_b u = true
  /\ canon_special hp hpo hd u.
Proof.
  intros Hu Hc Hp.
  destruct (L1_special dbg hp hpo hd (model_HostRT idna OK) input u (model_host_above idna OK) Hu Hc Hp) as (C & W & _).
  split; [exact (L3_special dbg hp hpo hd (model_HostRT idna OK) u C) | split; assumption].
Qed.

(* histories: parse, join, and the 19 mutators with arbitrary arguments - an IP argument of
   Url::set_ip_host being a Rust value (C05's own Reachable asks IpOK hd for every value of the model type
   `host`, which is false of Display: C09_Inst.model_IpOK_refuted) *)
Definition op_rust (o : C05_History.op) : Prop :=
  match o with C05_History.OSetIpHost h => ip_value h | _ => True end.

Inductive ReachableM : url -> Prop :=
| RM_parse ovr input u : model_parse dbg idna ovr None input = POk u -> ReachableM u
| RM_join ovr b input u : ReachableM b -> model_parse dbg idna ovr (Some b) input = POk u -> ReachableM u
| RM_step u o u' : ReachableM u -> op_rust o -> C05_History.apply_op dbg hp hpo hd u o = Some u' -> ReachableM u'.

End Inst.

(* HostOK of C05 needs the first clause of the oracle hypothesis only (answers are ASCII outside the deny list), so
   these hold relative to IdnaOK and to IdnaOK2 of Proofs/C09_Long.v alike *)
Section Alphabet.
Variable dbg : bool.
Variable idna : list N -> option (list N).
Hypothesis Out : forall bs d, idna bs = Some d -> Forall dom_char_ok d.

Notation hp := (host_parse idna).
Notation hpo := host_parse_opaque.
Notation hd := host_display.
Let HOK : C05_Parser.HostOK hp hpo hd := model_HostOK_C05_out idna Out.

Theorem parse_alphabet_out ovr base input u :
  match base with Some b => Forall ok_or_space (ser b) | None => True end ->
  model_parse dbg idna ovr base input = POk u -> Forall ok_or_space (ser u).
Proof.
  intros Hb Hp.
  exact (parse_url_okl ok_or_space ok_byte_or_space dbg hp hpo hd ovr HOK base input u (fun _ => ok_or_space_32) Hp Hb).
Qed.

Theorem parse_sharp_out ovr base input u : usv_list input ->
  match base with Some b => sharp b | None => True end ->
  model_parse dbg idna ovr base input = POk u -> sharp u.
Proof. exact (parse_url_sharp dbg hp hpo hd ovr HOK base input u). Qed.

Section Inv.
Variable P : N -> Prop.
Hypothesis P_ok : forall b, ok_byte b -> P b.
Hypothesis P_32 : P 32.

Lemma apply_op_okl_out u o u' : op_rust o -> C05_History.apply_op dbg hp hpo hd u o = Some u' ->
  okl P (ser u) -> okl P (ser u').
Proof.
  intros Hv H Hs. destruct o; cbn [C05_History.apply_op] in H;
    try (apply drop_status_some in H; destruct H as [st H]).
  - eapply set_fragment_okl; eassumption.
  - eapply set_query_okl; eassumption.
  - eapply set_path_okl; eassumption.
  - eapply set_port_okl; eassumption.
  - eapply set_host_okl; eassumption.
  - eapply set_ip_host_okl; [exact P_ok | | exact H | exact Hs].
    apply (okl_ok _ P_ok). apply model_IpOK_wf. apply ip_value_args. exact Hv.
  - eapply set_password_okl; eassumption.
  - eapply set_username_okl; eassumption.
  - eapply set_scheme_okl; eassumption.
  - eapply path_segments_session_okl; eassumption.
  - eapply q_set_protocol_okl; eassumption.
  - eapply q_set_username_okl; eassumption.
  - eapply q_set_password_okl; eassumption.
  - eapply q_set_host_okl; eassumption.
  - eapply q_set_hostname_okl; eassumption.
  - eapply q_set_port_okl; eassumption.
  - eapply q_set_pathname_okl; eassumption.
  - eapply q_set_search_okl; eassumption.
  - eapply q_set_hash_okl; eassumption.
Qed.

Theorem reachable_okl_out u : ReachableM dbg idna u -> okl P (ser u).
Proof.
  induction 1 as [ovr input u Hp | ovr b input u Hb IH Hp | u o u' Hu IH Hv Ho].
  - eapply parse_url_okl; [exact P_ok | exact HOK | intros _; exact P_32 | exact Hp | exact I].
  - eapply parse_url_okl; [exact P_ok | exact HOK | intros _; exact P_32 | exact Hp | exact IH].
  - eapply apply_op_okl_out; eassumption.
Qed.
End Inv.

(* whole histories - parse, join and the 19 mutators with arbitrary arguments *)
Theorem history_alphabet_out u : ReachableM dbg idna u -> Forall ok_or_space (ser u).
Proof. exact (reachable_okl_out ok_or_space ok_byte_or_space ok_or_space_32 u). Qed.
End Alphabet.

(* the premise IdnaOK is satisfiable (idna_clean of C16_RT6Model.v: the identity on ASCII text without denied
   characters), and with it the linked model runs: "a://u@[::1]:81/x" (opaque host parser, IPv6),
   "http://EXAMPLE.com/" is refused by idna_clean (upper case is on the deny list), "http://1.2.3/" is the
   IPv4 address 1.2.0.3, "ws://x.y:80/p" elides the default port *)
Definition ex_ser (s : list N) : option (list N) :=
  match model_parse true idna_clean None None s with POk u => Some (ser u) | _ => None end.

Example model_examples :
  IdnaOK idna_clean
  /\ ex_ser (B "a://u@[::1]:81/x"%string) = Some (B "a://u@[::1]:81/x"%string)
  /\ ex_ser (B "http://EXAMPLE.com/"%string) = None
  /\ ex_ser (B "http://1.2.3/"%string) = Some (B "http://1.2.0.3/"%string)
  /\ ex_ser (B "ws://x.y:80/p"%string) = Some (B "ws://x.y/p"%string)
  /\ nonfile_input (B "http://1.2.3/"%string) = true /\ special_input (B "ws://x.y:80/p"%string) = true
  /\ auth_input (B "a://u@[::1]:81/x"%string) = true.
Proof. split; [exact idna_clean_ok|]. vm_compute. repeat split. Qed.

(* a history step outside every Known class of C02_Reach.v that is no re-parse fixpoint *)
(* C09_Inst.opaque_ipv4_refuted at the level of URLs, executed on the linked model: Url::parse("a://x/"), then
   set_ip_host(127.0.0.1) gives a://127.0.0.1/ with the host kind Ipv4; its serialization re-parses to the same
   text and offsets with the host kind Domain (Host::parse_opaque does not read IPv4).  known_step is false for
   the step; Url's PartialEq (serialization only) does not see the difference, Url::host() does. *)
Definition set_ip_host_v4_witness : bool :=
  match model_parse true idna_clean None None (B "a://x/"%string) with
  | POk u =>
      negb (known_step true (host_parse idna_clean) host_parse_opaque host_display u (C02_Reach.OSetIpHost (HIpv4 2130706433)))
      && match set_ip_host true host_display u (HIpv4 2130706433) with
         | Some (u', _) =>
             list_eqb (ser u') (B "a://127.0.0.1/"%string) && hi_eqb (hosti u') (HI_Ipv4 2130706433)
             && negb (Known_file_drive u')
             && match model_parse true idna_clean None None (utf8_lossy (ser u')) with
                | POk v => list_eqb (ser v) (ser u') && hi_eqb (hosti v) HI_Domain && negb (url_eqb v u')
                | _ => false
                end
         | None => false
         end
  | _ => false
  end.

Theorem set_ip_host_v4_refuted : set_ip_host_v4_witness = true.
Proof. vm_compute. reflexivity. Qed.

(* the same as a refutation: C02's statement read for the linked model - every URL reachable through the API
   outside the Known classes of C02_Reach.v is a fixpoint of serialize-then-parse AS A RECORD - is false.
   (C02_statement itself is stated under HostOK, which no instance of the host model satisfies.)  The class
   the Known classes lack: set_ip_host with an IPv4 address on a URL whose scheme is not special. *)
Definition C02_model_statement : Prop :=
  forall dbg idna, IdnaOK idna -> forall u,
    C02_Reach.Reachable dbg (host_parse idna) host_parse_opaque host_display u ->
    Fixpoint_of_reparse dbg (host_parse idna) host_parse_opaque host_display u.

Definition w_dummy : url := mkUrl [] 0 0 0 0 HI_None None 0 None None.
Definition w_input : list N := B "a://x/"%string.
Definition w_op : C02_Reach.op := C02_Reach.OSetIpHost (HIpv4 2130706433).
Definition w_u0 : url := match model_parse true idna_clean None None w_input with POk u => u | _ => w_dummy end.
Definition w_u1 : url :=
  match C02_Reach.apply_op true (host_parse idna_clean) host_parse_opaque host_display w_u0 w_op with
  | Some u => u | None => w_dummy end.

Lemma w_facts :
  parse_url true (host_parse idna_clean) host_parse_opaque host_display None None w_input = POk w_u0
  /\ Known_file_drive w_u0 = false
  /\ known_step true (host_parse idna_clean) host_parse_opaque host_display w_u0 w_op = false
  /\ C02_Reach.apply_op true (host_parse idna_clean) host_parse_opaque host_display w_u0 w_op = Some w_u1
  /\ Known_file_drive w_u1 = false
  /\ match reparse true (host_parse idna_clean) host_parse_opaque host_display w_u1 with
     | POk v => list_eqb (ser v) (ser w_u1) && hi_eqb (hosti v) HI_Domain && hi_eqb (hosti w_u1) (HI_Ipv4 2130706433)
     | _ => false
     end = true.
Proof. vm_compute. repeat split; reflexivity. Qed.

Lemma w_input_usv : usv_list w_input.
Proof. apply Forall_forall. intros c Hc. vm_compute in Hc. unfold is_usv. repeat (destruct Hc as [<-|Hc]; [lia|]). destruct Hc. Qed.

Theorem C02_model_refuted : ~ C02_model_statement.
Proof.
  intros H. destruct w_facts as (E0 & K0 & KS & E1 & K1 & R).
  pose proof w_input_usv as Hu.
  assert (R1 : C02_Reach.Reachable true (host_parse idna_clean) host_parse_opaque host_display w_u1).
  { eapply C02_Reach.R_step; [eapply C02_Reach.R_parse; [exact Hu | exact E0 | exact K0] | | exact KS | exact E1 | exact K1].
    exact (eq_refl : (2130706433 ?= 4294967296) = Lt). }
  pose proof (H true idna_clean idna_clean_ok w_u1 R1) as F. unfold Fixpoint_of_reparse in F.
  rewrite F in R. vm_compute in R. discriminate R.
Qed.
