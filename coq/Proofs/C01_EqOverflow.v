(* Proofs/C01_EqOverflow.v - the Overflow disjunct of the C01 class theorems, made precise: in each
   proved class the model answers ParseError::Overflow only if the serialization the STANDARD
   prescribes (href) is itself longer than u32::MAX bytes. *)
From RU Require Import Base.Prelude Base.Utf8 Model.PercentEncoding Model.HostT Model.UrlRecord Model.Parser
  Model.Setters Model.KnownC08 Spec.Whatwg Proofs.ListN Proofs.C02_Parts Proofs.C02_Opaque Proofs.C02_Path
  Proofs.C02_PathL1 Proofs.C01_Tables Proofs.C08_Input Proofs.C08_Simple Proofs.C01_EqRun Proofs.C01_EqEnc
  Proofs.C01_EqOpaque Proofs.C01_EqRef Proofs.C01_EqPathSpec Proofs.C01_EqPath.

Lemma nlen_app_le a b : nlen a <= nlen (a ++ b).
Proof. rewrite nlen_app. lia. Qed.

Lemma to_u32_overflow n : to_u32 n = PErr Overflow -> U32_MAX_P < n.
Proof. unfold to_u32. destruct (n <=? U32_MAX_P) eqn:E; [discriminate | lia]. Qed.

Lemma to_u32_cases n : (exists m, to_u32 n = POk m /\ m = n) \/ (to_u32 n = PErr Overflow /\ U32_MAX_P < n).
Proof. unfold to_u32. destruct (n <=? U32_MAX_P) eqn:E; [left; eexists; split; reflexivity | right; split; [reflexivity | lia]]. Qed.

(* the query / fragment states overflow only if their whole output is too long *)
Lemma pqf_overflow ovr st se s l : usv_list l ->
  query_enc ovr (nfirstn se (s ++ [63])) = utf8_encode ->
  parse_query_and_fragment ovr CUrlParser st se s l = PErr Overflow ->
  U32_MAX_P < nlen (s ++ qf_text (pqf_q st l) (pqf_f l)).
Proof.
  intros Hl Henc. unfold parse_query_and_fragment, pqf_q, pqf_f.
  destruct (inp_next l) as [[c r]|] eqn:En; [|discriminate].
  pose proof (inp_next_usv l c r Hl En) as Hr.
  pose proof (nlen_app_le s (qf_text (if c =? 63 then Some (query_of st r) else None)
      (if c =? 35 then Some (frag_of r) else if c =? 63 then option_map frag_of (query_rest true r) else None))) as L0.
  destruct (c =? 35) eqn:E35.
  - destruct (to_u32_cases (nlen s)) as [(m & -> & _)|[-> B]]; cbn [pbind]; [discriminate | intros _; lia].
  - destruct (c =? 63) eqn:E63; [|discriminate].
    destruct (to_u32_cases (nlen s)) as [(m1 & -> & _)|[-> B]]; cbn [pbind]; [|intros _; lia].
    unfold parse_query. rewrite Henc. cbn [ctx_eqb].
    rewrite parse_query_loop_spec by (try constructor; exact Hr). cbn [rev app]. fold (query_of st r).
    destruct (query_rest true r) as [r2|]; [|discriminate].
    destruct (to_u32_cases (nlen ((s ++ [63]) ++ query_of st r))) as [(m2 & -> & _)|[-> B]]; cbn [pbind]; [discriminate|].
    intros _. unfold qf_text. cbn [option_map qf_qtext qf_ftext].
    clear L0. cbn [app] in *. unfold nlen in *; rewrite ?app_length in *; cbn [length] in *; rewrite ?app_length; lia.
Qed.

Section Bounds.
Variable dbg : bool.
Variable hp hpo : list N -> result host.
Variable hd : host -> list N.
Variable shp : bool -> list N -> option spec_host.
Variable shs : spec_host -> list N.

Lemma href_opaque sch P q f : get_href shs (spec_opaque_url sch P q f) = opaque_pre sch P ++ qf_text q f.
Proof.
  unfold get_href, serialize_url, spec_opaque_url, opaque_pre, qf_text.
  cbn [su_scheme su_username su_password su_host su_port su_path su_query su_fragment serialize_path].
  rewrite <- !app_assoc. destruct q; destruct f; reflexivity.
Qed.

(* opaque class *)
Theorem opaque_overflow_bound ovr input sch rem su : usv_list input ->
  parse_scheme CUrlParser (input_new_trim_c0 input) = Some (sch, rem) ->
  scheme_type_of sch = STNotSpecial -> inp_split_prefix_char 47 rem = None ->
  parse_url dbg hp hpo hd ovr None input = PErr Overflow ->
  spec_basic_url_parse shp input None = BDone su ->
  U32_MAX_P < nlen (get_href shs su).
Proof.
  intros Hu Hs Hns H47 E Hsu.
  rewrite (spec_opaque shp input sch rem Hs Hns H47) in Hsu. injection Hsu as <-.
  rewrite href_opaque.
  destruct (parse_scheme_suffix _ _ _ _ Hs) as [pre0 Hpre].
  assert (usv_list rem) as Hur.
  { pose proof (usv_trim input Hu) as Ht. rewrite Hpre in Ht. apply usv_app in Ht. tauto. }
  pose proof (nlen_app_le (opaque_pre sch (opaque_of rem))
                (qf_text (pqf_q STNotSpecial (cbb_rest rem)) (pqf_f (cbb_rest rem)))) as L1.
  assert (nlen sch <= nlen (opaque_pre sch (opaque_of rem)) /\ nlen (sch ++ [58]) <= nlen (opaque_pre sch (opaque_of rem))) as [L2 L3].
  { unfold opaque_pre. rewrite !nlen_app. lia. }
  revert E. unfold parse_url. rewrite Hs. unfold parse_with_scheme. rewrite Hns.
  destruct (to_u32_cases (nlen sch)) as [(m & -> & ->)|[-> B]]; cbn [pbind]; [|intros _; lia].
  rewrite pns_opaque_eval by assumption.
  destruct (to_u32_cases (nlen (sch ++ [58]))) as [(m2 & -> & ->)|[-> B]]; cbn [pbind]; [|intros _; lia].
  destruct (parse_query_and_fragment ovr CUrlParser STNotSpecial (nlen sch) (opaque_pre sch (opaque_of rem)) (cbb_rest rem))
    as [[[s2 qs] fs]|e|] eqn:Eq; cbn [pbind]; try discriminate.
  intros E. injection E as ->.
  apply (pqf_overflow ovr STNotSpecial (nlen sch)); [apply usv_cbb_rest; exact Hur | | exact Eq].
  unfold opaque_pre. rewrite <- !app_assoc. rewrite nfirstn_app_len. apply query_enc_nonspecial. exact Hns.
Qed.

(* fragment only *)
Theorem fragment_only_overflow_bound input b sb f su : usv_list input -> related dbg shs b sb ->
  spec_clean input = 35 :: f ->
  parse_url dbg hp hpo hd None (Some b) input = PErr Overflow ->
  spec_basic_url_parse shp input (Some sb) = BDone su ->
  U32_MAX_P < nlen (get_href shs su).
Proof.
  intros Hu R Hc E Hsu.
  rewrite (spec_fragment_only shp input sb f Hc (rel_valid _ _ _ _ R)) in Hsu. injection Hsu as <-.
  assert (ref_text input = 35 :: f) as Hr.
  { rewrite ref_text_eq, <- spec_clean_is_ntnl_trim. exact Hc. }
  rewrite (join_frag_eq dbg hp hpo hd b input f Hu Hr) in E.
  destruct (to_u32_cases (nlen (b_before_fragment b))) as [(m & Em & _)|[_ B]]; [rewrite Em in E; discriminate|].
  rewrite (rel_bf _ _ _ _ R) in B.
  assert (get_href shs (set_fragment sb (Some (upe in_fragment_set f)))
          = serialize_url shs sb true ++ 35 :: upe in_fragment_set f) as ->.
  { unfold get_href, serialize_url.
    cbn [su_scheme su_username su_password su_host su_port su_path su_query su_fragment set_fragment
         includes_credentials serialize_path].
    rewrite !app_nil_r. rewrite <- !app_assoc. reflexivity. }
  pose proof (nlen_app_le (serialize_url shs sb true) (35 :: upe in_fragment_set f)). lia.
Qed.

(* path only *)
Lemma href_noauth sch P q f : P <> [] -> forallb no_slash P = true ->
  get_href shs (spec_noauth_url sch P q f) = noauth_pre sch (flat_map (fun s => 47 :: s) P) ++ qf_text q f.
Proof.
  intros Hne Hns. unfold get_href, serialize_url, spec_noauth_url, noauth_pre, qf_text.
  cbn [su_scheme su_username su_password su_host su_port su_path su_query su_fragment serialize_path].
  rewrite (marker_flat P Hne Hns). rewrite <- !app_assoc. destruct q; destruct f; reflexivity.
Qed.

Theorem pathonly_overflow_bound ovr input sch rem rem' su : usv_list input ->
  parse_scheme CUrlParser (input_new_trim_c0 input) = Some (sch, rem) ->
  scheme_type_of sch = STNotSpecial ->
  inp_split_prefix_str s_ss rem = None -> inp_split_prefix_char 47 rem = Some rem' ->
  ntnl rem = 47 :: ntnl rem' -> starts_with_cp 47 (ntnl rem') = false ->
  spath_ok (ntnl rem') [] [] = true ->
  parse_url dbg hp hpo hd ovr None input = PErr Overflow ->
  spec_basic_url_parse shp input None = BDone su ->
  U32_MAX_P < nlen (get_href shs su).
Proof.
  intros Hu Hs Hns Hss H47 Hrem Hn47 Hok E Hsu.
  destruct (parse_scheme_suffix _ _ _ _ Hs) as [pre0 Hpre].
  assert (usv_list rem) as Hur.
  { pose proof (usv_trim input Hu) as Ht. rewrite Hpre in Ht. apply usv_app in Ht. tauto. }
  assert (usv_list rem') as Hur'.
  { unfold inp_split_prefix_char in H47. destruct (inp_next rem) as [[d r]|] eqn:En; [|discriminate].
    destruct (d =? 47); [|discriminate]. inversion H47; subst. exact (inp_next_usv rem d rem' Hur En). }
  assert (pend_ok []) as Hp0 by (split; [constructor | reflexivity]).
  destruct (loop_exact (sch ++ [58]) dbg rem' [] [] [] false Hur' Hp0 eq_refl eq_refl Hok)
    as (segs & last & Hloop & Hfst & Hsnd).
  cbn [app rev utf8_encode flat_map encode] in Hfst, Hsnd.
  rewrite (spec_noauth shp input sch rem rem' Hs Hns Hrem Hn47 Hsnd) in Hsu. injection Hsu as <-.
  set (P := fst (spath (ntnl rem') [] [])) in *.
  assert (P <> []) as Hne by (rewrite Hfst; intros H; apply app_eq_nil in H; destruct H; discriminate).
  assert (forallb no_slash P = true) as Hnsl by (apply spath_no_slash; reflexivity).
  rewrite (href_noauth sch P _ _ Hne Hnsl).
  set (T := flat_map (fun s => 47 :: s) P).
  assert (T = path_text segs last) as ET by (unfold T; rewrite Hfst; apply path_text_flat).
  pose proof (nlen_app_le (noauth_pre sch T) (qf_text (pqf_q STNotSpecial (cbb_rest rem')) (pqf_f (cbb_rest rem')))) as L1.
  assert (nlen sch <= nlen (noauth_pre sch T) /\ nlen (sch ++ [58]) <= nlen (noauth_pre sch T)) as [L2 L3].
  { unfold noauth_pre. rewrite !nlen_app. lia. }
  revert E. unfold parse_url. rewrite Hs. unfold parse_with_scheme. rewrite Hns.
  destruct (to_u32_cases (nlen sch)) as [(m & -> & ->)|[-> B]]; cbn [pbind]; [|intros _; lia].
  unfold parse_non_special. rewrite Hss, H47.
  destruct (to_u32_cases (nlen (sch ++ [58]))) as [(m2 & -> & ->)|[-> B]]; cbn [pbind]; [|intros _; lia].
  unfold parse_path.
  assert ((sch ++ [58]) ++ [47] = Bs (sch ++ [58]) [] ++ []) as EB by (unfold Bs; cbn; rewrite !app_nil_r; reflexivity).
  rewrite EB. rewrite app_nil_r at 2. rewrite Hloop. cbn [pbind].
  assert (Bs (sch ++ [58]) segs ++ last = (sch ++ [58]) ++ T) as EBT.
  { rewrite ET. unfold Bs, path_text. rewrite <- !app_assoc. reflexivity. }
  rewrite EBT.
  assert (starts_with [47] T = true) as HT by (rewrite ET; reflexivity).
  rewrite (wqf_noauth_eq hp hpo ovr sch T (cbb_rest rem') HT). cbv zeta.
  destruct (parse_query_and_fragment ovr CUrlParser STNotSpecial (nlen sch) (noauth_pre sch T) (cbb_rest rem'))
    as [[[s2 qs] fs]|e|] eqn:Eq; cbn [pbind]; try discriminate.
  intros E. injection E as ->.
  apply (pqf_overflow ovr STNotSpecial (nlen sch)); [apply usv_cbb_rest; exact Hur' | | exact Eq].
  unfold noauth_pre. rewrite <- !app_assoc. rewrite nfirstn_app_len. apply query_enc_nonspecial. exact Hns.
Qed.

(* query only *)
(* the href of the Standard's result of a "?query" reference, from the model's query and fragment texts *)
Lemma ref_result_href b sb l q : related dbg shs b sb -> ntnl l = 63 :: q ->
  get_href shs (ref_result sb q) = b_before_query b ++ qf_text (pqf_q (b_st b) l) (pqf_f l).
Proof.
  intros R He. destruct (inp_next_some l 63 q He) as (r & En & Er & Et).
  assert (pqf_q (b_st b) l = Some (upe (qset_of sb) (before_hash q))) as Pq.
  { unfold pqf_q. rewrite En. replace (63 =? 63) with true by reflexivity. f_equal.
    unfold query_of, b_st, qset_of, is_special, query_set. rewrite (rel_sch _ _ _ _ R).
    rewrite special_schemes_are_the_standards, before_hash_ntnl, Er.
    destruct (is_special_scheme (su_scheme sb)); apply enc_bridge; [exact rel_SPECIAL_QUERY | exact rel_QUERY]. }
  assert (pqf_f l = option_map (upe in_fragment_set) (after_hash q)) as Pf.
  { unfold pqf_f. rewrite En. replace (63 =? 63) with true by reflexivity. replace (63 =? 35) with false by reflexivity.
    rewrite <- Er, <- after_hash_ntnl.
    destruct (query_rest true r) as [r2|]; cbn [option_map]; [|reflexivity]. rewrite frag_of_upe. reflexivity. }
  rewrite Pq, Pf. unfold ref_result, get_href. rewrite (rel_bq _ _ _ _ R). unfold serialize_url, qf_text.
  cbn [su_scheme su_username su_password su_host su_port su_path su_query su_fragment set_fragment set_query
       includes_credentials serialize_path qf_qtext].
  rewrite !app_nil_r. rewrite <- !app_assoc. cbn [app].
  destruct (after_hash q); reflexivity.
Qed.

Theorem query_only_overflow_bound input b sb q su : usv_list input -> related dbg shs b sb ->
  has_opaque_path sb = false -> spec_clean input = 63 :: q ->
  parse_url dbg hp hpo hd None (Some b) input = PErr Overflow ->
  spec_basic_url_parse shp input (Some sb) = BDone su ->
  U32_MAX_P < nlen (get_href shs su).
Proof.
  intros Hu R Hop Hc E Hsu.
  rewrite (spec_query_only shp input sb q Hc (rel_valid _ _ _ _ R) Hop) in Hsu. injection Hsu as <-.
  assert (cannot_be_a_base b = Some false) as Hcb by (rewrite (rel_cbb _ _ _ _ R), Hop; reflexivity).
  revert E. unfold parse_url. set (l := input_new_trim_c0 input).
  assert (ntnl l = 63 :: q) as He by (unfold l; rewrite <- spec_clean_is_ntnl_trim; exact Hc).
  assert (usv_list l) as Hl by (apply usv_trim; exact Hu).
  rewrite parse_scheme_first_not_alpha by (rewrite He; reflexivity).
  destruct (inp_next_some l 63 q He) as (r & En & Er & Et).
  unfold inp_starts_with_char. rewrite En. cbn [N.eqb Pos.eqb]. rewrite Hcb.
  pose proof (ref_result_href b sb l q R He) as EH.
  rewrite EH.
  assert ((s3 <~ parse_query_and_fragment None CUrlParser (b_st b) (scheme_end b) (b_before_query b) l ;;
                     (let '(s, qs, fs) := s3 in POk (url_with b s qs fs))) = PErr Overflow ->
          U32_MAX_P < nlen (b_before_query b ++ qf_text (pqf_q (b_st b) l) (pqf_f l))) as K.
  { intros H.
    destruct (parse_query_and_fragment None CUrlParser (b_st b) (scheme_end b) (b_before_query b) l)
      as [[[s qs] fs]|e|] eqn:Eq; cbn [pbind] in H; try discriminate.
    injection H as ->. apply (pqf_overflow None (b_st b) (scheme_end b)); [exact Hl | reflexivity | exact Eq]. }
  fold (b_st b).
  destruct (st_is_file (b_st b)).
  - unfold parse_file, inp_split_first. rewrite En. cbn [is_slash_or_bslash N.eqb Pos.eqb orb].
    intros H. exact (K H).
  - unfold parse_relative, inp_split_first. rewrite En. cbn [N.eqb Pos.eqb].
    intros H. exact (K H).
Qed.

End Bounds.
