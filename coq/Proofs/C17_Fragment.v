(* Proofs/C17_Fragment.v - for opaque-path data: URLs the fragment DataUrl::decode returns,
   percent-encoded with to_percent_encoded, is the URL parser's fragment.  Both are "what follows the
   first '#', ASCII tab / newlines removed, percent-encoded with the fragment set".
   Also the facts the other C17 files use about the URL record of an opaque-path data: URL:
   parse_opaque_explicit, opaque_url_without_fragment, scheme_type_of_data, filter_not_tnl_utf8. *)
From RU Require Import Base.Prelude Base.Utf8 Base.Utf8Facts Gen.Tables Model.PercentEncoding
  Model.HostT Model.UrlRecord Model.Parser Model.Mime Model.DataUrl Model.DataUrlTie
  Proofs.ListN Proofs.C14_Enc Proofs.C02_Enc Proofs.C02_Parts Proofs.C02_Opaque
  Proofs.C18_BodyRef Proofs.C17_Tables Proofs.C17_Total Proofs.C17_Decode Proofs.C17_Bridge.

(* what follows the first c *)
Fixpoint after_first (c : N) (l : list N) : option (list N) :=
  match l with
  | [] => None
  | x :: r => if x =? c then Some r else after_first c r
  end.

(* the URL side: the record of an opaque-path URL, explicitly *)
Section Opaque.
Variable dbg : bool.
Variable hp hpo : list N -> result host.
Variable hd : host -> list N.

Theorem parse_opaque_explicit input sch rem u : usv_list input ->
  parse_scheme CUrlParser (input_new_trim_c0 input) = Some (sch, rem) ->
  scheme_type_of sch = STNotSpecial -> inp_split_prefix_char 47 rem = None ->
  parse_url dbg hp hpo hd None None input = POk u ->
  usv_list rem /\
  u = opaque_url sch (opaque_of rem) (pqf_q STNotSpecial (cbb_rest rem)) (pqf_f (cbb_rest rem)).
Proof.
  intros Hu Hs Hns H47. unfold parse_url. rewrite Hs. unfold parse_with_scheme. rewrite Hns.
  destruct (to_u32 (nlen sch)) as [se| |] eqn:Eu; cbn [pbind]; try discriminate.
  apply to_u32_inv in Eu. destruct Eu as [-> Hb0].
  pose proof (parse_scheme_rem_usv input sch rem Hu Hs) as Hur.
  rewrite pns_opaque_eval by assumption.
  destruct (to_u32 (nlen (sch ++ [58]))) as [ps| |] eqn:Eu; cbn [pbind]; try discriminate.
  apply to_u32_inv in Eu. destruct Eu as [-> Hb1].
  destruct (parse_query_and_fragment None CUrlParser STNotSpecial (nlen sch) (opaque_pre sch (opaque_of rem)) (cbb_rest rem))
    as [[[s2 qs] fs]| |] eqn:Eq; cbn [pbind]; try discriminate.
  intros H. inversion H; subst u. clear H.
  apply pqf_out in Eq; [|apply usv_cbb_rest; exact Hur|reflexivity].
  destruct Eq as (-> & -> & -> & _). split; [exact Hur|reflexivity].
Qed.
End Opaque.

(* serialization without fragment, and fragment, of that record *)
Lemma opaque_url_fragment sch P q f : url_fragment (opaque_url sch P q f) = f.
Proof.
  unfold url_fragment, opaque_url. cbn [fragment_start ser]. unfold qf_fs.
  destruct f as [x|]; [|reflexivity]. f_equal.
  unfold opaque_ser, qf_text. cbn [qf_ftext].
  replace (nlen (opaque_pre sch P) + nlen (qf_qtext q) + 1) with (nlen ((opaque_pre sch P ++ qf_qtext q) ++ [35]))
    by (rewrite !nlen_app; unfold nlen; cbn [length]; lia).
  replace (opaque_pre sch P ++ qf_qtext q ++ 35 :: x) with (((opaque_pre sch P ++ qf_qtext q) ++ [35]) ++ x)
    by (rewrite <- !app_assoc; reflexivity).
  apply nskipn_app_len.
Qed.

Lemma opaque_url_without_fragment sch P q f :
  url_without_fragment (opaque_url sch P q f) = opaque_pre sch P ++ qf_qtext q.
Proof.
  unfold url_without_fragment, opaque_url. cbn [fragment_start ser]. unfold qf_fs.
  destruct f as [x|].
  - unfold opaque_ser, qf_text. cbn [qf_ftext].
    replace (nlen (opaque_pre sch P) + nlen (qf_qtext q)) with (nlen (opaque_pre sch P ++ qf_qtext q)) by (rewrite nlen_app; reflexivity).
    rewrite app_assoc. apply nfirstn_app_len.
  - unfold opaque_ser, qf_text. cbn [qf_ftext]. rewrite app_nil_r. reflexivity.
Qed.

(* the fragment the URL parser produces: what follows the first '#' of the text after the scheme *)
Lemma query_rest_after l : query_rest true l = after_first 35 l.
Proof.
  induction l as [|c r IH]; [reflexivity|]. cbn [query_rest after_first].
  destruct (is_tnl c) eqn:Et.
  - replace (c =? 35) with false by (unfold is_tnl in Et; lia). exact IH.
  - rewrite andb_true_r. destruct (c =? 35); [reflexivity|exact IH].
Qed.

Lemma pqf_f_after rem : pqf_f (cbb_rest rem) = option_map frag_of (after_first 35 rem).
Proof.
  induction rem as [|c r IH]; [reflexivity|]. cbn [cbb_rest after_first].
  destruct (is_tnl c) eqn:Et.
  { replace (c =? 35) with false by (unfold is_tnl in Et; lia). exact IH. }
  unfold is_qh. destruct (c =? 35) eqn:E35.
  { rewrite orb_true_r. unfold pqf_f. rewrite inp_next_cons by exact Et. rewrite E35. reflexivity. }
  destruct (c =? 63) eqn:E63; cbn [orb]; [|exact IH].
  unfold pqf_f. rewrite inp_next_cons by exact Et. rewrite E35, E63, query_rest_after. reflexivity.
Qed.

(* the crate side: the fragment body_ref returns is what follows the first '#' *)
Lemma body_ref_fragment : forall n b, (length b <= n)%nat -> snd (body_ref b) = after_first 35 b.
Proof.
  induction n as [|n IH]; intros b Hl.
  - destruct b; [reflexivity|cbn [length] in Hl; lia].
  - destruct b as [|x r]; [reflexivity|]. cbn [length] in Hl. cbn [body_ref after_first].
    destruct (x =? 35) eqn:E35; [reflexivity|].
    destruct ((x =? 9) || (x =? 10) || (x =? 13)); [apply IH; lia|].
    assert (Hkeep : snd (let (o, f) := body_ref r in (x :: o, f)) = after_first 35 r).
    { rewrite <- (IH r) by lia. destruct (body_ref r); reflexivity. }
    destruct (x =? 37); [|exact Hkeep].
    destruct r as [|h [|l r']]; try exact Hkeep.
    destruct (hex_val h) as [hv|] eqn:Eh; [|exact Hkeep].
    destruct (hex_val l) as [lv|] eqn:El; [|exact Hkeep].
    cbn [after_first].
    assert (Hh : (h =? 35) = false) by (unfold hex_val, is_digit in Eh; destruct (h =? 35) eqn:E; [apply N.eqb_eq in E; subst h; discriminate|reflexivity]).
    assert (Hl2 : (l =? 35) = false) by (unfold hex_val, is_digit in El; destruct (l =? 35) eqn:E; [apply N.eqb_eq in E; subst l; discriminate|reflexivity]).
    rewrite Hh, Hl2. rewrite <- (IH r') by (cbn [length] in Hl; lia). destruct (body_ref r'); reflexivity.
Qed.

Lemma after_first_app_notin c a b : ~ In c a -> after_first c (a ++ b) = after_first c b.
Proof.
  induction a as [|x a IH]; intros H; [reflexivity|]. cbn [app after_first].
  destruct (x =? c) eqn:E; [apply N.eqb_eq in E; exfalso; apply H; left; exact E|].
  apply IH. intros Hin. apply H. right. exact Hin.
Qed.

Lemma after_first_usv c l x : usv_list l -> after_first c l = Some x -> usv_list x.
Proof.
  induction l as [|y r IH]; cbn [after_first]; [discriminate|]. intros Hu. inversion Hu; subst.
  destruct (y =? c); [intros H; inversion H; subst; assumption|auto].
Qed.

(* bytes vs code points: the first ASCII byte c of the encoding is the first code point c *)
Lemma after_first_utf8 c s : c < 128 -> usv_list s ->
  after_first c (utf8_encode s) = option_map utf8_encode (after_first c s).
Proof.
  intros Hc. induction s as [|x r IH]; intros Hu; [reflexivity|]. inversion Hu as [|? ? Hx Hr]; subst.
  rewrite utf8_cons. cbn [after_first].
  destruct (x =? c) eqn:E.
  - apply N.eqb_eq in E. subst x. rewrite encode1_ascii by exact Hc. cbn [app after_first]. rewrite N.eqb_refl. reflexivity.
  - rewrite after_first_app_notin; [exact (IH Hr)|].
    intros Hin. apply (utf8_encode1_low x c Hin) in Hc. subst x. rewrite N.eqb_refl in E. discriminate.
Qed.

(* to_percent_encoded on the bytes of a string = the fragment state of the URL parser on the string *)
Lemma to_percent_encoded_bytes : forall bs, bytes bs ->
  to_percent_encoded bs = encode T_FRAGMENT (filter not_tnl bs).
Proof.
  induction bs as [|b r IH]; intros Hb; [reflexivity|]. inversion Hb as [|? ? Hb1 Hb2]; subst. unfold is_byte in Hb1.
  cbn [to_percent_encoded filter]. rewrite is_skipped_spec. unfold not_tnl. change (is_tnl b) with (tnl b).
  destruct (tnl b) eqn:Et; cbn [negb]; [exact (IH Hb2)|].
  rewrite encode_cons. unfold enc1. rewrite <- frag_enc_is_fragment by exact Hb1.
  destruct (in_ranges b T_DU_FRAG_ENC).
  - rewrite percent_encode_spec by exact Hb1. rewrite (IH Hb2). reflexivity.
  - rewrite (IH Hb2). reflexivity.
Qed.

Lemma filter_not_tnl_utf8 s : usv_list s -> filter not_tnl (utf8_encode s) = utf8_encode (strip_tnl s).
Proof.
  induction s as [|c r IH]; intros Hu; [reflexivity|]. inversion Hu as [|? ? Hc Hr]; subst.
  rewrite utf8_cons, filter_app, (IH Hr). unfold strip_tnl. cbn [filter].
  destruct (not_tnl c) eqn:En.
  - rewrite utf8_cons. f_equal.
    assert (Hall : forallb not_tnl (utf8_encode1 c) = true).
    { apply forallb_forall. intros b Hb. unfold not_tnl, is_tnl in *.
      destruct (N.ltb_spec b 128) as [Hlt|Hge]; [rewrite (utf8_encode1_low c b Hb Hlt); exact En|lia]. }
    clear -Hall. induction (utf8_encode1 c) as [|b l IHl]; [reflexivity|]. cbn [filter forallb] in *.
    apply andb_true_iff in Hall. destruct Hall as [H1 H2]. rewrite H1. f_equal. exact (IHl H2).
  - rewrite encode1_ascii by (unfold not_tnl, is_tnl in En; lia). cbn [filter]. rewrite En. reflexivity.
Qed.

Lemma to_percent_encoded_frag x : usv_list x -> to_percent_encoded (utf8_encode x) = frag_of x.
Proof.
  intros Hu. rewrite to_percent_encoded_bytes by (apply utf8_encode_bytes; exact Hu).
  rewrite filter_not_tnl_utf8 by exact Hu. reflexivity.
Qed.

(* what process_and_decode returns, in terms of the pieces *)
Lemma process_and_decode_pieces s m b body fragment :
  process_and_decode s = PdOk m b (inl body) fragment ->
  exists A h B, pretend_parse_data_url (utf8_encode s) = Ok (Some A)
    /\ find_comma_before_fragment A = Ok (Some (h, B))
    /\ parse_header h = Ok (m, b)
    /\ fragment = option_map to_percent_encoded (snd (body_ref B))
    /\ DataUrl.decode_to_vec (mk_data_url m b B) = DecOk body (snd (body_ref B)).
Proof.
  unfold process_and_decode, process_and_decode_bytes, process_bytes.
  destruct (pretend_parse_data_url (utf8_encode s)) as [[A|]| |] eqn:EA; cbn [bind]; try discriminate.
  destruct (find_comma_before_fragment A) as [[[h B]|]| |] eqn:EB; cbn [bind]; try discriminate.
  destruct (parse_header h) as [[m' b']| |] eqn:EH; cbn [bind fst snd]; try discriminate.
  destruct (DataUrl.decode_to_vec (mk_data_url m' b' B)) as [body' f'|d|] eqn:Ed; try discriminate.
  cbn [DataUrl.mime_type du_mime_type du_base64]. intros H. inversion H; subst. clear H.
  assert (Hf : f' = snd (body_ref B)).
  { rewrite decode_to_vec_ref in Ed. unfold decoded_ref in Ed. cbn [du_base64 du_encoded_body_plus_fragment] in Ed.
    destruct (body_ref B) as [out f]. cbn [snd].
    destruct b; [destruct (Model.Base64.decode_to_vec out); inversion Ed; reflexivity|inversion Ed; reflexivity]. }
  exists A, h, B. split; [reflexivity|]. split; [exact EB|]. split; [exact EH|]. split; [rewrite Hf; reflexivity|].
  rewrite Ed, Hf. reflexivity.
Qed.

Lemma scheme_type_of_data : scheme_type_of s_data = STNotSpecial.
Proof. reflexivity. Qed.

Theorem fragment_is_url_fragment dbg hp ho hd s rem u : usv_list s ->
  parse_scheme CUrlParser (input_new_trim_c0 s) = Some (s_data, rem) -> inp_split_prefix_char 47 rem = None ->
  parse_url dbg hp ho hd None None s = POk u ->
  forall m b body fragment, process_and_decode s = PdOk m b (inl body) fragment ->
  fragment = url_fragment u.
Proof.
  intros Hs Hp H47 Hu m b body fragment Hpd.
  destruct (parse_opaque_explicit dbg hp ho hd s s_data rem u Hs Hp scheme_type_of_data H47 Hu) as [Hur ->].
  rewrite opaque_url_fragment, pqf_f_after.
  destruct (process_and_decode_pieces _ _ _ _ _ Hpd) as (A & h & B & HA & HB & _ & Hf & _).
  rewrite (pretend_parse_is_parse_scheme s rem Hs Hp) in HA. inversion HA; subst A. clear HA.
  destruct (find_comma_spec _ _ _ HB) as (Hsplit & _ & Hno).
  rewrite Hf, (body_ref_fragment (length B) B (Nat.le_refl _)).
  assert (E : after_first 35 B = after_first 35 (utf8_encode rem)).
  { rewrite Hsplit. rewrite after_first_app_notin by exact Hno. reflexivity. }
  rewrite E, after_first_utf8 by (try exact Hur; lia).
  destruct (after_first 35 rem) as [x|] eqn:Ex; [|reflexivity]. cbn [option_map]. f_equal.
  apply to_percent_encoded_frag. exact (after_first_usv 35 rem x Hur Ex).
Qed.
