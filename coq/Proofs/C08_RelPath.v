(* Proofs/C08_RelPath.v - the path state on the text make_relative emits (URL-parser context):
     - one "../" removes exactly the last closed segment of  pre "/" seg "/" ... "/"  (loop_dotdot_st), whatever the
       scheme, unless that segment is drive-letter shaped (never popped - F-C08-4e), and leaves  pre "/"  alone;
       k times "../" remove k segments (loop_dots_st);
     - after the "../" the segments of the target, canonical for the scheme type (seg_ok: canonical, and free of '\'
       under a special scheme), are appended unchanged (C02_Path.loop_canon): loop_rel, for every scheme but "file";
     - loop_nonfile: on a text without a '\' that a special scheme would read as a separator, the loop of a scheme that
       is not "file" is the loop of a non-special scheme. *)
From RU Require Import Base.Prelude Base.Utf8 Base.Utf8Facts Model.AsciiSet Gen.Tables
  Model.PercentEncoding Model.HostT Model.UrlRecord Model.Parser Model.WF
  Proofs.ListN Proofs.C14_Set Proofs.C14_Enc Proofs.C14_Views Proofs.C02_Enc Proofs.C02_Parts
  Proofs.C02_Opaque Proofs.C02_Path Proofs.C02_PathL1 Proofs.C02_PathSp Proofs.C02_File.

(* independence of the scheme type (not file) *)
Lemma finish_nonfile dbg st ps ser ss ews hh : st_is_file st = false ->
  finish_segment dbg st ps ser ss ews hh = finish_segment dbg STNotSpecial ps ser ss ews hh.
Proof. intros H. unfold finish_segment, shorten_path, pop_path. rewrite H. reflexivity. Qed.

Lemma push_pending_st st ser pend : push_pending CUrlParser st ser pend = push_pending CUrlParser STNotSpecial ser pend.
Proof. reflexivity. Qed.

(* no '\' where the scheme is special *)
Definition no_spec_bslash (st : scheme_type) (c : N) : bool := negb ((c =? 92) && st_is_special st).

Definition rest_qh (rest : list N) : Prop :=
  match rest with [] => True | c :: _ => is_qh c = true /\ is_tnl c = false end.

Lemma loop_nonfile dbg st ps p rest : st_is_file st = false -> forallb (no_spec_bslash st) p = true ->
  rest_qh rest ->
  forall ser ss pend hh,
  parse_path_loop dbg CUrlParser st ps (p ++ rest) ser ss pend hh
  = parse_path_loop dbg CUrlParser STNotSpecial ps (p ++ rest) ser ss pend hh.
Proof.
  intros Hf Hp Hrest. induction p as [|c r IH]; intros ser ss pend hh.
  - cbn [app]. destruct rest as [|c r].
    + cbn [parse_path_loop]. rewrite finish_nonfile by exact Hf. unfold file_path_fixup. rewrite Hf. reflexivity.
    + destruct Hrest as [Hq Ht]. unfold is_qh in Hq.
      cbn [parse_path_loop]. rewrite Ht. cbn [ctx_eqb negb andb].
      replace (c =? 47) with false by lia. replace (c =? 92) with false by lia. cbn [andb orb].
      rewrite Hq. rewrite finish_nonfile by exact Hf. unfold file_path_fixup. rewrite Hf. reflexivity.
  - cbn [forallb] in Hp. apply andb_true_iff in Hp. destruct Hp as [Hc Hr]. specialize (IH Hr).
    unfold no_spec_bslash in Hc. apply negb_true_iff in Hc.
    cbn [app parse_path_loop]. rewrite Hc, Hf. cbn [st_is_special st_is_file andb]. rewrite andb_false_r.
    rewrite !(finish_nonfile dbg st) by exact Hf. unfold file_path_fixup. rewrite Hf. cbn [st_is_file].
    change (push_pending CUrlParser st ser pend) with (push_pending CUrlParser STNotSpecial ser pend).
    destruct (is_tnl c); [apply IH|].
    cbn [ctx_eqb negb andb orb]. rewrite orb_false_r.
    destruct (c =? 47).
    + destruct (finish_segment dbg STNotSpecial ps (push_pending CUrlParser STNotSpecial ser pend ++ [47]) ss true hh) as [[s2 h2]| |];
        cbn [pbind]; try reflexivity. apply IH.
    + destruct ((c =? 63) || (c =? 35)); [reflexivity|]. apply IH.
Qed.

(* "../" pops the last closed segment, whatever the scheme *)
Definition dots_text (ra : list (list N)) : list N := concat (map (fun _ : list N => [46; 46; 47]) ra).
Definition not_wdl_seg (t : list N) : bool := negb (starts_with_wdl (t ++ [47])).

Lemma wdl_snoc s : starts_with_wdl (s ++ [47]) = starts_with_wdl s.
Proof.
  destruct s as [|a [|b [|c r]]]; cbn [app starts_with_wdl]; try reflexivity.
  replace ((47 =? 58) || (47 =? 124)) with false by reflexivity. rewrite andb_false_r. reflexivity.
Qed.

Lemma nwdl_of_not_wdl t : starts_with_wdl t = false -> is_normalized_wdl t = false.
Proof. intros H. unfold is_normalized_wdl, is_wdl. rewrite H. rewrite andb_false_r. reflexivity. Qed.

Lemma dots_text_snoc ra t : dots_text (ra ++ [t]) = 46 :: 46 :: 47 :: dots_text ra.
Proof. induction ra as [|a ra IH]; [reflexivity|]. cbn [app]. unfold dots_text in *. cbn [map concat app]. rewrite IH. reflexivity. Qed.

Section DotDotSt.
Variables (pre : list N) (dbg : bool) (st : scheme_type).
Notation ps := (nlen pre).
Notation BsP := (Bs pre).
Notation loop := (parse_path_loop dbg CUrlParser st ps).

Lemma finish_dotdot segs t hh : no_slash t = true -> starts_with_wdl (t ++ [47]) = false ->
  finish_segment dbg st ps (BsP (segs ++ [t]) ++ [46; 46] ++ [47]) (nlen (BsP (segs ++ [t]))) true hh
  = POk (BsP segs, hh).
Proof.
  intros Htn Hok. set (B1 := BsP (segs ++ [t])). set (s1 := B1 ++ [46; 46] ++ [47]).
  destruct (Bs_ends pre (segs ++ [t])) as [X EX]. fold B1 in EX.
  unfold finish_segment. fold s1.
  replace (slice_o s1 (nlen B1) (nlen s1 - 1)) with (Some [46; 46]).
  2:{ unfold s1. rewrite !nlen_app.
      replace (nlen B1 + (nlen [46; 46] + nlen [47]) - 1) with (nlen B1 + nlen [46; 46]) by (unfold nlen; cbn [length]; lia).
      symmetry. apply slice_mid. }
  cbn [of_option pbind is_double_dot].
  (* the debug assertion: the byte in front of ".." is the '/' that closes t *)
  replace (if dbg then _ else POk tt) with (POk tt).
  2:{ destruct dbg; [|reflexivity]. rewrite EX, nlen_app. change (nlen [47]) with 1.
      replace (1 <=? nlen X + 1) with true by lia. rewrite N.add_sub.
      unfold s1. rewrite EX, nnth_app_l by (rewrite nlen_app; change (nlen [47]) with 1; lia).
      rewrite nnth_app_last. reflexivity. }
  cbn [pbind]. replace (truncate s1 (nlen B1)) with B1 by (unfold truncate, s1; symmetry; apply nfirstn_app_len).
  replace (ends_with_byte 47 B1) with true by (rewrite EX; symmetry; apply ends_with_byte_snoc). cbn [andb].
  (* the last '/' in front of t can go, t not being drive-letter shaped; then t itself goes *)
  unfold B1. rewrite lscbr_Bs_snoc by exact Htn. unfold path_starts_with_wdl. rewrite Hok, andb_false_r. cbn [negb].
  rewrite Bs_cut_last, shorten_Bs by exact Htn.
  rewrite nwdl_of_not_wdl, andb_false_r by (rewrite <- wdl_snoc; exact Hok). cbn [pbind].
  destruct (Bs_ends pre segs) as [X0 EX0]. rewrite EX0, ends_with_byte_snoc. reflexivity.
Qed.

Lemma Bs_no_drive_arm segs : drive_arm st ps (BsP segs) = false.
Proof. unfold drive_arm. rewrite (C02_File.Bs_skip pre), nwdl_segs_text_f. apply andb_false_r. Qed.

(* the loop on "../": one segment less *)
Lemma loop_dotdot_st segs t X hh : no_slash t = true -> starts_with_wdl (t ++ [47]) = false ->
  loop (46 :: 46 :: 47 :: X) (BsP (segs ++ [t])) (nlen (BsP (segs ++ [t]))) [] hh
  = loop X (BsP segs) (nlen (BsP segs)) [] hh.
Proof.
  intros Htn Hok. rewrite !loop_plain by (try reflexivity; apply Bs_no_drive_arm). rewrite loop_sep by reflexivity.
  change [46; 46] with (rev [46; 46] ++ []). rewrite push_pending_clean by reflexivity.
  rewrite <- app_assoc. rewrite (finish_dotdot segs t hh Htn Hok). reflexivity.
Qed.

(* as many "../" as segments in ra: all of them go *)
Lemma loop_dots_st ra : forall segs X hh,
  forallb no_slash ra = true -> forallb not_wdl_seg ra = true ->
  loop (dots_text ra ++ X) (BsP (segs ++ ra)) (nlen (BsP (segs ++ ra))) [] hh
  = loop X (BsP segs) (nlen (BsP segs)) [] hh.
Proof.
  induction ra as [|t ra IH] using rev_ind; intros segs X hh Hn Hw.
  - rewrite app_nil_r. reflexivity.
  - rewrite forallb_snoc in Hn, Hw. apply andb_true_iff in Hn, Hw. destruct Hn as [Hn Ht]. destruct Hw as [Hw Hwt].
    unfold not_wdl_seg in Hwt. apply negb_true_iff in Hwt.
    rewrite dots_text_snoc, app_assoc. cbn [app].
    rewrite loop_dotdot_st by assumption. apply IH; assumption.
Qed.

End DotDotSt.

(* every scheme except "file" *)
Section DotDot.
Variable pre : list N.
Variable dbg : bool.
Notation ps := (nlen pre).
Notation BsP := (Bs pre).
Notation loop := (parse_path_loop dbg CUrlParser STNotSpecial ps).

Lemma loop_dotdot segs t X hh : no_slash t = true -> starts_with_wdl (t ++ [47]) = false ->
  loop (46 :: 46 :: 47 :: X) (BsP (segs ++ [t])) (nlen (BsP (segs ++ [t]))) [] hh
  = loop X (BsP segs) (nlen (BsP segs)) [] hh.
Proof. apply loop_dotdot_st. Qed.

Lemma loop_dots ra : forall segs X hh,
  forallb no_slash ra = true -> forallb not_wdl_seg ra = true ->
  loop (dots_text ra ++ X) (BsP (segs ++ ra)) (nlen (BsP (segs ++ ra))) [] hh
  = loop X (BsP segs) (nlen (BsP segs)) [] hh.
Proof. apply loop_dots_st. Qed.

End DotDot.

(* the whole reference path: k "../", then canonical segments *)
Definition seg_ok (st : scheme_type) (s : list N) : bool := good_seg s && forallb (no_spec_bslash st) s.

Lemma seg_ok_parts st s : seg_ok st s = true -> good_seg s = true /\ forallb (no_spec_bslash st) s = true.
Proof. unfold seg_ok. intros H. apply andb_true_iff in H. exact H. Qed.

(* under a special scheme: canonical and free of '\' *)
Lemma seg_ok_special st s : st_is_special st = true -> good_seg_sp s = true -> seg_ok st s = true.
Proof.
  unfold good_seg_sp, seg_ok. intros Hsp H. apply andb_true_iff in H. destruct H as [H1 H2]. rewrite H1. cbn [andb].
  unfold no_byte in H2. apply (forallb_impl (fun c => negb (c =? 92))); [|exact H2].
  intros c Hc. unfold no_spec_bslash. rewrite Hsp, andb_true_r. exact Hc.
Qed.

Lemma segs_ok_good st segs : forallb (seg_ok st) segs = true -> forallb good_seg segs = true.
Proof. apply forallb_impl. intros s H. exact (proj1 (seg_ok_parts st s H)). Qed.

(* what the loop does with a character of such a segment *)
Lemma seg_ok_plain st s : seg_ok st s = true -> forallb (plain_char st) s = true.
Proof.
  intros H. destruct (seg_ok_parts st s H) as [Hg Hb]. apply good_seg_chars in Hg.
  apply forallb_forall. intros c Hc.
  pose proof (proj1 (forallb_forall _ _) Hg c Hc) as H1. pose proof (proj1 (forallb_forall _ _) Hb c Hc) as H2.
  unfold plain_char, sep. unfold seg_char in H1. unfold no_spec_bslash in H2.
  destruct (not_tnl c), (c =? 47), (is_qh c), ((c =? 92) && st_is_special st); try discriminate; reflexivity.
Qed.

Theorem loop_rel dbg st pre common ra rb tl rest hh :
  st_is_file st = false ->
  forallb no_slash ra = true -> forallb not_wdl_seg ra = true ->
  forallb (seg_ok st) rb = true -> seg_ok st tl = true -> rest_qh rest ->
  parse_path_loop dbg CUrlParser st (nlen pre) (dots_text ra ++ segs_text rb ++ tl ++ rest)
    (Bs pre (common ++ ra)) (nlen (Bs pre (common ++ ra))) [] hh
  = POk (Bs pre (common ++ rb) ++ tl, hh, rest).
Proof.
  intros Hf Hn Hw Hrb Htl Hrest. rewrite loop_dots_st by assumption.
  rewrite (loop_canon dbg st (nlen pre) (seg_ok st)); try assumption.
  - unfold file_path_fixup. rewrite Hf, Bs_app, <- !app_assoc. reflexivity.
  - intros s H. apply (good_seg_parts s (proj1 (seg_ok_parts st s H))).
  - exact (seg_ok_plain st).
  - intros s ss H. destruct (good_seg_parts s (proj1 (seg_ok_parts st s H))) as (_ & _ & Hsd & Hdd).
    rewrite Hf. repeat split; assumption.
  - intros X. unfold drive_arm. rewrite Hf. reflexivity.
Qed.
