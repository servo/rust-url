(* Proofs/C08_ContainFileFront.v - containment for FILE bases in the strong form of C08_contain_auth (everything in
   front of the path byte-identical, the seven stored values in front of the path unchanged, the result
   well-formed), outside the drive-letter branches of parse_file:
     - the reference (after trimming) does not start with a Windows-drive-letter segment, neither at its start
       nor behind one leading slash;
     - for a reference with one leading slash, the first path segment of the base is not a normalized drive
       letter ("C:").
   (file_ref_plain, computable.)  In the excluded branches the host may be dropped (F-C01-1 / F-C08-1,
   C08_1_refuted); C08_ContainFile.contain_file covers them in the weak form.
   The base is asked to have the layout of a file URL record (file_shape, computable: "file://" in front, no
   credentials, no port, path_start = host_end) - true of every record parse_file builds. *)
From Coq Require Import ZifyBool ZifyN.
From RU Require Import Base.Prelude Base.Utf8 Base.Utf8Facts Model.AsciiSet Gen.Tables Model.PercentEncoding
  Model.HostT Model.UrlRecord Model.Parser Model.Setters Model.WF Model.KnownC08
  Proofs.ListN Proofs.C14_Enc Proofs.C02_Enc Proofs.C02_Parts Proofs.C02_Opaque Proofs.C03_WF Proofs.C06_List
  Proofs.C06_WFI Proofs.C06_Tail Proofs.C06_Steps Proofs.C06_FragQuery Proofs.C06_Suffix Proofs.C06_Front
  Proofs.C06_PathParser Proofs.C06_Path Proofs.C08_Input Proofs.C08_Simple Proofs.C08_Contain.
Open Scope N_scope.
Open Scope list_scope.

(* the layout of a file URL record *)
Definition file_shape (b : url) : bool :=
  (scheme_end b =? 4) && (username_end b =? 7) && (host_start b =? 7) && (path_start b =? host_end b)
  && match port b with None => true | Some _ => false end
  && list_eqb (nfirstn 7 (ser b)) s_file_css
  && (has_host b || (host_end b =? 7)).

(* the reference stays outside the drive-letter branches of parse_file *)
Definition file_ref_plain (b : url) (input : list N) : bool :=
  let l := input_new_trim_c0 input in
  match inp_next l with
  | Some (c, r) =>
      if is_slash_or_bslash c
      then negb (starts_with_wdl_segment r)
           && match base_first_segment b with Some seg => negb (is_normalized_wdl seg) | None => false end
      else negb (starts_with_wdl_segment l)
  | None => true
  end.

(* the file path fix-up re-establishes the '/' at path_start *)
Lemma fixup_pinv ps pre x : nlen pre = ps -> PInv ps ps pre x ->
  PInv ps (ps + 1) (pre ++ [47]) (file_path_fixup STFile ps x).
Proof.
  intros Lp [I1 I2]. unfold file_path_fixup. cbn [st_is_file]. rewrite I1. split.
  - change (pre ++ [47] ++ drop_while is_slash (nskipn ps x)) with (pre ++ ([47] ++ drop_while is_slash (nskipn ps x))).
    rewrite app_assoc. rewrite nfirstn_app_le by (rewrite nlen_app, Lp; change (nlen [47]) with 1; lia).
    apply nfirstn_all. rewrite nlen_app, Lp. change (nlen [47]) with 1. lia.
  - rewrite nskipn_app_ge by lia. rewrite Lp, N.sub_diag, nskipn_0.
    cbn [app forallb]. apply drop_while_forallb. exact I2.
Qed.

Section ContainFileFront.
Variables (dbg : bool) (hp hpo : list N -> result host) (hd : host -> list N).
Notation join b input := (parse_url dbg hp hpo hd None (Some b) input).

(* the path state on a file base, started on a text that carries the base's front; then query and fragment *)
Lemma file_path_arm b hh s0 r u' : wf_b b = true -> has_authority_b b = true ->
  PInv (path_start b) (path_start b) (nfirstn (path_start b) (ser b)) s0 ->
  usv_list r ->
  (p <~ parse_path dbg CUrlParser STFile hh (path_start b) s0 r ;;
   (let '(s, _, rem) := p in
    with_query_and_fragment None CUrlParser STFile (scheme_end b) (username_end b) (host_start b) (host_end b)
      (hosti b) (port b) (path_start b) s rem)) = POk u' ->
  wf_b u' = true /\ same_front dbg b u' /\ same_main b u' /\ agree_pre (path_start b) (ser b) (ser u').
Proof.
  intros W Ha I Hr H. unfold parse_path in H.
  pose proof (path_start_le_len b W) as B5.
  assert (nlen (nfirstn (path_start b) (ser b)) = path_start b) as Lpre by (apply nlen_nfirstn; exact B5).
  destruct (parse_path_loop dbg CUrlParser STFile (path_start b) r s0 (nlen s0) [] hh) as [[[s hh'] rem]| |] eqn:E;
    cbn [pbind] in H; try discriminate.
  destruct (pinv_loop_url dbg (path_start b) (path_start b) _ ltac:(lia) ltac:(lia) Lpre STFile r
              ltac:(intros _; reflexivity) _ _ _ _ _ _ _ E I
              ltac:(eapply pinv_len; [| |exact Lpre|exact I]; lia) Hr ltac:(constructor))
    as ((x & Ex & Ix) & Hrem & _).
  subst s. eapply (wqf_auth dbg hp hpo); [exact W | exact Ha | | exact Hrem | exact H].
  apply fixup_pinv; assumption.
Qed.

(* with an authority in front, with_query_and_fragment only appends query and fragment *)
Lemma wqf_plain st se ue hs he hi po ps s rest : se + 3 <= ps ->
  starts_with s_css (nskipn se s) = true ->
  with_query_and_fragment None CUrlParser st se ue hs he hi po ps s rest
  = (' (s2, qs, fs) <~ parse_query_and_fragment None CUrlParser st se s rest ;;
     POk (mkUrl s2 se ue hs he hi po ps qs fs)).
Proof.
  intros H Hc. unfold with_query_and_fragment.
  replace (ps =? se + 1) with false by lia.
  assert ((ps =? se + 3) && list_eqb (nfirstn (ps - se) (nskipn se s)) [58; 47; 46] = false) as ->.
  { destruct (ps =? se + 3) eqn:E; [|reflexivity]. cbn [andb]. apply N.eqb_eq in E. rewrite E.
    replace (se + 3 - se) with 3 by lia. apply starts_with_split in Hc. rewrite Hc. reflexivity. }
  cbn [pbind]. reflexivity.
Qed.

Lemma file_shape_inv b : file_shape b = true ->
  scheme_end b = 4 /\ username_end b = 7 /\ host_start b = 7 /\ path_start b = host_end b /\ port b = None
  /\ nfirstn 7 (ser b) = s_file_css /\ (has_host b = false -> host_end b = 7).
Proof.
  unfold file_shape. intros H. repeat (apply andb_true_iff in H; destruct H as [H ?]).
  destruct (port b); [discriminate|]. repeat split; try lia.
  - apply list_eqb_spec. assumption.
  - intros Hh. rewrite Hh in *. cbn [orb] in *. lia.
Qed.

Lemma nfirstn_split a k l : a <= nlen l -> nfirstn a l ++ nfirstn k (nskipn a l) = nfirstn (a + k) l.
Proof.
  intros H. rewrite <- (nfirstn_nskipn a l) at 3.
  rewrite nfirstn_app_ge by (rewrite nlen_nfirstn by exact H; lia).
  rewrite nlen_nfirstn by exact H. replace (a + k - a) with k by lia. reflexivity.
Qed.

(* the same with the tail written as in the one-slash arm of parse_file *)
Lemma file_path_arm_pqf b hh s0 r u' : wf_b b = true -> has_authority_b b = true -> file_shape b = true ->
  PInv (path_start b) (path_start b) (nfirstn (path_start b) (ser b)) s0 ->
  usv_list r ->
  (p <~ parse_path dbg CUrlParser STFile hh (path_start b) s0 r ;;
   (let '(s, _, rem) := p in
    ' (s3, qs, fs) <~ parse_query_and_fragment None CUrlParser STFile 4 s rem ;;
    POk (file_url s3 7 (path_start b) (hosti b) qs fs))) = POk u' ->
  wf_b u' = true /\ same_front dbg b u' /\ same_main b u' /\ agree_pre (path_start b) (ser b) (ser u').
Proof.
  intros W Ha Hsh I Hr H. unfold parse_path in H.
  destruct (file_shape_inv b Hsh) as (Sse & Sue & Shs & Sps & Spo & S7 & Snh).
  pose proof (path_start_le_len b W) as B5.
  pose proof (wf_auth_facts b W Ha) as F.
  pose proof (af_ue F) as B1. pose proof (af_hs F) as B2. pose proof (af_he F) as B3. pose proof (af_ps F) as B4.
  assert (nlen (nfirstn (path_start b) (ser b)) = path_start b) as Lpre by (apply nlen_nfirstn; exact B5).
  destruct (parse_path_loop dbg CUrlParser STFile (path_start b) r s0 (nlen s0) [] hh) as [[[s hh'] rem]| |] eqn:E;
    cbn [pbind] in H; try discriminate.
  destruct (pinv_loop_url dbg (path_start b) (path_start b) _ ltac:(lia) ltac:(lia) Lpre STFile r
              ltac:(intros _; reflexivity) _ _ _ _ _ _ _ E I
              ltac:(eapply pinv_len; [| |exact Lpre|exact I]; lia) Hr ltac:(constructor))
    as ((x & Ex & Ix) & Hrem & _).
  subst s. pose proof (fixup_pinv _ _ _ Lpre Ix) as I2.
  eapply (wqf_auth dbg hp hpo); [exact W | exact Ha | exact I2 | exact Hrem |].
  rewrite wqf_plain.
  - rewrite Sse. unfold file_url in H. rewrite Sue, Shs, Spo, <- Sps. exact H.
  - lia.
  - unfold has_authority_b in Ha. rewrite <- Ha. apply (pre_starts_with (path_start b)); [|change (nlen s_css) with 3; lia].
    unfold agree_pre. destruct I2 as [I21 _].
    rewrite <- (nfirstn_nfirstn (path_start b) (path_start b + 1)) by lia. rewrite I21.
    rewrite nfirstn_app_le by lia. apply nfirstn_all. lia.
Qed.

Theorem contain_file_front b input u' :
  wf_b b = true -> has_authority_b b = true -> st_is_file (b_st b) = true -> file_shape b = true ->
  usv_list input -> contain_pre b input = true -> file_ref_plain b input = true ->
  join b input = POk u' ->
  wf_b u' = true /\ same_front dbg b u' /\ same_main b u' /\ agree_pre (path_start b) (ser b) (ser u').
Proof.
  intros W Ha Hf Hsh Hu Hcp Hpl.
  pose proof (auth_not_cbb b W Ha) as Hc.
  destruct (contain_pre_inv b input Hcp) as [Hns H2s].
  destruct (ref_text input) as [|c t] eqn:Et.
  { rewrite (join_empty dbg hp hpo hd b input Hc Et). intros H. inversion H; subst u'.
    destruct (without_fragment_spec dbg b W) as (W1 & SF1 & SM1 & _ & _ & _ & _ & _ & Es1).
    split; [exact W1|]. split; [exact SF1|]. split; [exact SM1|]. unfold agree_pre. rewrite Es1.
    apply before_fragment_prefix. exact W. }
  destruct (N.eq_dec c 35) as [->|N35].
  { intros H. rewrite (join_frag_out dbg hp hpo hd b input t u' Hu Et H).
    destruct (with_fragment_spec dbg b (encode T_FRAGMENT (utf8_encode t)) W) as (W1 & SF1 & SM1 & _ & _ & _ & Es1).
    split; [exact W1|]. split; [exact SF1|]. split; [exact SM1|]. unfold agree_pre. rewrite Es1.
    destruct (before_fragment_prefix b W) as [A1 A2]. rewrite nfirstn_app_le by exact A2. exact A1. }
  destruct (N.eq_dec c 63) as [->|N63].
  { intros H. destruct (join_query dbg hp hpo hd b input t u' W Hc Hu Et H) as [-> HQ].
    destruct (with_query_spec dbg hp hpo b _ (ref_fragment t) W HQ) as (W1 & SF1 & SM1 & _).
    split; [exact W1|]. split; [exact SF1|]. split; [exact SM1|]. unfold agree_pre, with_query, url_with. cbn [ser].
    rewrite nfirstn_app_le by (apply ps_le_before_query; exact W). apply before_query_prefix. exact W. }
  (* the path arms *)
  unfold parse_url. unfold file_ref_plain in Hpl. set (l := input_new_trim_c0 input) in *. change (ntnl l = c :: t) in Et.
  assert (usv_list l) as Hl by (apply usv_trim; exact Hu).
  rewrite parse_scheme_none by (rewrite Et; exact Hns).
  destruct (inp_next_some l c t Et) as (r & En & Er & Ect).
  pose proof (inp_next_usv l c r Hl En) as Hr.
  unfold inp_starts_with_char. rewrite En in *. replace (c =? 35) with false by lia. rewrite Hc.
  fold (b_st b). rewrite Hf. destruct (b_st b) eqn:Ebst; try discriminate Hf. unfold parse_file, inp_split_first. rewrite En.
  pose proof (path_start_le_len b W) as B5.
  assert (nlen (nfirstn (path_start b) (ser b)) = path_start b) as Lp by (apply nlen_nfirstn; exact B5).
  destruct (file_shape_inv b Hsh) as (Sse & Sue & Shs & Sps & Spo & S7 & Snh).
  pose proof (af_he (wf_auth_facts b W Ha)) as B3.
  destruct (is_slash_or_bslash c) eqn:Esl.
  - (* one leading slash *)
    apply andb_true_iff in Hpl. destruct Hpl as [Hw Hseg]. rewrite Hw.
    assert (match inp_next r with Some (d, _) => is_slash_or_bslash d | None => false end = false) as Hnext.
    { destruct (inp_next r) as [[d r2]|] eqn:En2; [|reflexivity].
      destruct (is_slash_or_bslash d) eqn:Esl2; [|reflexivity]. exfalso.
      destruct (inp_next_ntnl r d r2 En2) as [E2 _]. rewrite <- Er, E2 in H2s.
      unfold two_leading_slashes, base_special in H2s. fold (b_st b) in H2s. rewrite Ebst in H2s.
      unfold is_ref_slash, is_slash_or_bslash in *. cbn [st_is_special] in H2s. lia. }
    assert (PInv (path_start b) (path_start b) (nfirstn (path_start b) (ser b)) (nfirstn (path_start b) (ser b))) as I0.
    { split; [apply nfirstn_all; lia|]. rewrite nskipn_all by lia. reflexivity. }
    destruct (inp_next r) as [[d r2]|] eqn:En2; cbv beta iota zeta in Hnext |- *; [rewrite Hnext|].
    all: destruct (base_first_segment b) as [seg|]; [|discriminate Hseg]; apply negb_true_iff in Hseg; rewrite Hseg.
    all: unfold host_str; destruct (has_host b) eqn:Hh;
      [ unfold u_slice, slice_o; rewrite Shs;
        replace ((7 <=? host_end b) && (host_end b <=? nlen (ser b))) with true by lia; cbn [bindo];
        rewrite <- S7, nfirstn_split by lia; replace (7 + (host_end b - 7)) with (path_start b) by lia;
        rewrite Lp; apply (file_path_arm_pqf b false _ l u' W Ha Hsh I0 Hl)
      | assert (hosti b = HI_None) as Hn by (unfold has_host in Hh; destruct (hosti b); try discriminate Hh; reflexivity);
        pose proof (Snh eq_refl) as S7';
        generalize (file_path_arm_pqf b false _ l u' W Ha Hsh I0 Hl); rewrite Hn;
        replace (path_start b) with 7 by lia; rewrite S7; exact (fun K => K) ].
  - (* a relative path *)
    replace (c =? 63) with false by lia. replace (c =? 35) with false by lia. rewrite Hpl.
    destruct (without_query_spec dbg b W) as (W1 & _ & _ & _ & Eq1 & Ef1 & Es1 & _).
    set (u1 := without_query b) in *.
    pose proof (qf_facts_of u1 W1) as (_ & _ & _ & Q4 & _).
    assert (path_end u1 = nlen (ser u1)) as Epe by (unfold path_end; rewrite Eq1, Ef1; reflexivity).
    rewrite Epe in Q4. replace (path_start u1) with (path_start b) in Q4 by reflexivity.
    pose proof (ps_le_before_query b W) as Lq. rewrite <- Es1 in Lq.
    rewrite nfirstn_all in Q4 by (rewrite nlen_nskipn; lia).
    assert (PInv (path_start b) (path_start b) (nfirstn (path_start b) (ser b)) (b_before_query b)) as I0.
    { split; [apply before_query_prefix; exact W | rewrite <- Es1; exact Q4]. }
    destruct (shorten_path STFile (path_start b) (b_before_query b)) as [s1| |] eqn:Esh; cbn [pbind]; try discriminate.
    pose proof (pinv_shorten_path (path_start b) (path_start b) _ ltac:(lia) ltac:(lia) Lp _ _ _ Esh I0) as I1.
    exact (file_path_arm b true s1 l u' W Ha I1 Hl).
Qed.

End ContainFileFront.

(* non-vacuity *)
From Coq Require Import String.
From RU Require Import Proofs.C02_Reach Proofs.C08_Relative.
Open Scope string_scope.

(* the premises hold, the join succeeds, the text in front of the path and the host kind are the base's *)
Definition file_front_case (bs r expect : string) : bool :=
  match toy_parse bs with
  | POk b =>
      wf_b b && has_authority_b b && st_is_file (b_st b) && file_shape b && contain_pre b (B r) && file_ref_plain b (B r)
      && match toy_join b (B r) with
         | POk u => list_eqb (ser u) (B expect) && list_eqb (nfirstn (path_start b) (ser u)) (nfirstn (path_start b) (ser b))
                    && N.eqb (path_start u) (path_start b) && hi_eqb (hosti u) (hosti b)
         | _ => false
         end
  | _ => false
  end.

(* premises except file_ref_plain hold, and the host is dropped: the excluded branches are really different *)
Definition file_front_excluded (bs r : string) : bool :=
  match toy_parse bs with
  | POk b =>
      wf_b b && has_authority_b b && st_is_file (b_st b) && file_shape b && contain_pre b (B r) && negb (file_ref_plain b (B r))
      && match toy_join b (B r) with
         | POk u => negb (hi_eqb (hosti u) (hosti b))
         | _ => false
         end
  | _ => false
  end.

