(* Proofs/C06_Splice.v - WHOLE-URL parser agreement, part 1: the "front" of each canonical form.
   For every canonical record of C02 (opaque path / '/'-led path without authority / authority with a
   non-special scheme / authority with a special non-file scheme) the parser, run on the text of the record in
   front of the query followed by ANY text R that is empty-or-'?'/'#'-led, is the query-and-fragment state run on
   R behind that front.  With the state-level identities for a raw query / raw fragment this gives
   parse_url (old serialization with the argument spliced in) = POk (the record the setter returns). *)
From RU Require Import Base.Prelude Base.Utf8 Base.Utf8Facts Model.AsciiSet Gen.Tables
  Model.PercentEncoding Model.HostT Model.UrlRecord Model.Parser Model.Setters Model.WF
  Proofs.ListN Proofs.C14_Set Proofs.C14_Enc Proofs.C14_Views Proofs.C02_Enc Proofs.C02_Parts
  Proofs.C02_Opaque Proofs.C02_Path Proofs.C02_PathL1 Proofs.C02_Reach Proofs.C16_RT Proofs.C02_AuthParts
  Proofs.C02_Auth Proofs.C02_AuthWf Proofs.C02_PathSp Proofs.C02_AuthSp Proofs.C02_AuthMain Proofs.C02_SetQF
  Proofs.C02_Canon Proofs.C06_List Proofs.C06_AgreeUrl.
Open Scope N_scope.
Open Scope list_scope.

Ltac llia := unfold nlen in *; repeat (progress (rewrite ?app_length in *; cbn [length app] in *)); lia.

Lemma first_ok_rev_app2 (a b : list N) : b <> [] -> first_ok (rev b) -> first_ok (rev (a ++ b)).
Proof.
  intros Hn H. rewrite rev_app_distr. destruct (rev b) as [|c r] eqn:E.
  - exfalso. apply Hn. rewrite <- (rev_involutive b), E. reflexivity.
  - exact H.
Qed.

Lemma scheme_first_ok sch X : scheme_canon sch = true -> first_ok (sch ++ X).
Proof.
  unfold scheme_canon. destruct sch as [|c s]; [discriminate|]. intros H. apply andb_true_iff in H. destruct H as [Hl _].
  cbn [app first_ok]. unfold is_lower, is_c0_or_space in *. lia.
Qed.

Lemma qh_ok_head R : qh_ok R -> match R with [] => True | c :: _ => is_qh c = true /\ is_tnl c = false end.
Proof. exact (fun H => H). Qed.

Lemma query_chars_drop stop l : query_chars stop (drop_while is_tnl l) = query_chars stop l.
Proof.
  induction l as [|c r IH]; [reflexivity|]. cbn [drop_while query_chars]. destruct (is_tnl c) eqn:E; [exact IH|].
  cbn [query_chars]. rewrite E. reflexivity.
Qed.

Lemma query_chars_false l : query_chars false l = filter not_tnl l.
Proof.
  induction l as [|c r IH]; [reflexivity|]. cbn [query_chars filter]. unfold not_tnl at 1.
  destruct (is_tnl c); cbn [negb]; [exact IH|]. rewrite andb_false_r, IH. reflexivity.
Qed.

Lemma filter_drop_tnl l : filter not_tnl (drop_while is_tnl l) = filter not_tnl l.
Proof.
  induction l as [|c r IH]; [reflexivity|]. cbn [drop_while].
  destruct (is_tnl c) eqn:E; [|reflexivity]. cbn [filter]. unfold not_tnl at 2. rewrite E. exact IH.
Qed.

Lemma filter_rev_tnl l : filter not_tnl (rev l) = rev (filter not_tnl l).
Proof.
  induction l as [|c r IH]; [reflexivity|]. cbn [rev filter]. rewrite filter_app, IH. cbn [filter].
  destruct (not_tnl c); [reflexivity | apply app_nil_r].
Qed.

Lemma query_chars_trim l : query_chars false (input_new_trim_tnl l) = query_chars false l.
Proof.
  rewrite !query_chars_false. unfold input_new_trim_tnl, trim_matches.
  rewrite filter_rev_tnl, filter_drop_tnl, filter_rev_tnl, rev_involutive. apply filter_drop_tnl.
Qed.

Lemma ewb_snoc (x : list N) b : ends_with_byte b (x ++ [b]) = true.
Proof. unfold ends_with_byte. rewrite rev_app_distr. cbn [rev app]. apply N.eqb_refl. Qed.

Definition no_hash (x : list N) : bool := forallb (fun c => negb (c =? 35)) x.

(* a '#'-free text in front of a '#' (or of nothing): the query state of the parser reads what the setter's reads *)
Lemma query_chars_stop x : no_hash x = true ->
  (query_chars true x = query_chars false x /\ query_rest true x = None)
  /\ (forall y, query_chars true (x ++ 35 :: y) = query_chars false x /\ query_rest true (x ++ 35 :: y) = Some y).
Proof.
  induction x as [|c x IH]; intros H.
  - split; [split; reflexivity|]. intros y. cbn [app query_chars query_rest].
    replace (is_tnl 35) with false by reflexivity. replace ((35 =? 35) && true) with true by reflexivity. split; reflexivity.
  - cbn [no_hash forallb] in H. apply andb_true_iff in H. destruct H as [H1 H2]. apply negb_true_iff in H1.
    destruct (IH H2) as [[I1 I2] I3].
    split; [split | intros y; destruct (I3 y) as [J1 J2]; split]; cbn [app query_chars query_rest];
      destruct (is_tnl c); try assumption; rewrite H1; cbn [andb]; congruence.
Qed.

(* the query-and-fragment state on: canonical query ++ raw fragment, raw query ++ canonical fragment *)
Section PQF.
Variable st : scheme_type.
Variable se : N.

Theorem pqf_canon_raw_f pre q x : usv_list x -> opt_clean (query_set st) q ->
  nlen (pre ++ qf_text q (Some (frag_of x))) <= U32_MAX_P ->
  parse_query_and_fragment None CUrlParser st se pre (qf_qtext q ++ 35 :: x)
  = POk (pre ++ qf_text q (Some (frag_of x)), qf_qs (nlen pre) q, qf_fs (nlen pre) q (Some (frag_of x))).
Proof.
  intros Hx Hq Hb. unfold parse_query_and_fragment, qf_text in *.
  destruct q as [t|]; cbn [qf_qtext qf_ftext qf_qs qf_fs opt_clean app] in *.
  - rewrite inp_next_cons by reflexivity.
    replace (63 =? 35) with false by reflexivity. replace (63 =? 63) with true by reflexivity.
    rewrite to_u32_ok by (rewrite nlen_app in Hb; lia). cbn [pbind].
    assert (usv_list (t ++ 35 :: x)) as Hu.
    { apply usv_app. split; [apply ascii_usv; apply (clean_ascii (query_set st)); exact Hq|].
      apply usv_cons. split; [unfold is_usv; lia | exact Hx]. }
    unfold parse_query. cbn [query_enc ctx_eqb].
    rewrite parse_query_loop_spec by (try constructor; exact Hu). cbn [rev app].
    fold (query_of st (t ++ 35 :: x)).
    destruct (query_of_canon st t Hq) as (_ & _ & Hc). destruct (Hc x) as [C1 C2]. rewrite C1, C2.
    assert (nlen ((pre ++ [63]) ++ t) = nlen pre + nlen (63 :: t)) as El by (clear; llia).
    rewrite El. rewrite to_u32_ok by (clear - Hb; llia).
    cbn [pbind]. rewrite parse_fragment_spec by exact Hx. rewrite <- !app_assoc. reflexivity.
  - rewrite inp_next_cons by reflexivity. replace (35 =? 35) with true by reflexivity.
    rewrite N.add_0_r. rewrite to_u32_ok by (rewrite nlen_app in Hb; lia). cbn [pbind].
    rewrite parse_fragment_spec by exact Hx. rewrite <- !app_assoc. reflexivity.
Qed.

Theorem pqf_raw_q_canon pre x f : usv_list x -> no_hash x = true -> opt_clean T_FRAGMENT f ->
  nlen (pre ++ qf_text (Some (squery_of st x)) f) <= U32_MAX_P ->
  parse_query_and_fragment None CUrlParser st se pre (63 :: x ++ qf_ftext f)
  = POk (pre ++ qf_text (Some (squery_of st x)) f, qf_qs (nlen pre) (Some (squery_of st x)),
         qf_fs (nlen pre) (Some (squery_of st x)) f).
Proof.
  intros Hx Hh Hf Hb. unfold parse_query_and_fragment, qf_text in *. cbn [qf_qtext qf_qs] in *.
  rewrite inp_next_cons by reflexivity.
  replace (63 =? 35) with false by reflexivity. replace (63 =? 63) with true by reflexivity.
  rewrite to_u32_ok by (rewrite nlen_app in Hb; lia). cbn [pbind].
  destruct (query_chars_stop x Hh) as [[S1 S2] S3].
  unfold parse_query. cbn [query_enc ctx_eqb].
  destruct f as [y|]; cbn [qf_ftext qf_fs opt_clean] in *.
  - assert (usv_list y) as Hy by (apply ascii_usv; apply (clean_ascii T_FRAGMENT); exact Hf).
    assert (usv_list (x ++ 35 :: y)) as Hu.
    { apply usv_app. split; [exact Hx|]. apply usv_cons. split; [unfold is_usv; lia | exact Hy]. }
    rewrite parse_query_loop_spec by (try constructor; exact Hu). cbn [rev app].
    destruct (S3 y) as [C1 C2]. rewrite C1, C2. rewrite <- (query_chars_trim x). fold (squery_of st x).
    assert (nlen ((pre ++ [63]) ++ squery_of st x) = nlen pre + nlen (63 :: squery_of st x)) as El by (clear; llia).
    rewrite El. rewrite to_u32_ok by (clear - Hb; llia).
    cbn [pbind]. rewrite parse_fragment_spec by exact Hy. rewrite frag_of_canon by exact Hf.
    rewrite <- !app_assoc. reflexivity.
  - rewrite app_nil_r. rewrite parse_query_loop_spec by (try constructor; exact Hx). cbn [rev app].
    rewrite S1, S2. rewrite <- (query_chars_trim x). fold (squery_of st x).
    rewrite app_nil_r. rewrite <- !app_assoc. reflexivity.
Qed.
End PQF.

(* the front of the four canonical forms *)
Section Front.
Variable dbg : bool.
Variable hp hpo : list N -> result host.
Variable hd : host -> list N.
Hypothesis HRT : HostRT hp hpo hd.

(* parse_url on  pre ++ R : if the query-and-fragment state on R behind pre writes the canonical texts q, f,
   the parser returns the record of this shape with q, f *)
Definition qf_front (pre : list N) (st : scheme_type) (se ue hs he : N) (hi : host_internal) (pt : option N) (ps : N) : Prop :=
  forall R q f, qh_ok R -> R <> [] -> usv_list R -> first_ok (rev R) ->
    parse_query_and_fragment None CUrlParser st se pre R
      = POk (pre ++ qf_text q f, qf_qs (nlen pre) q, qf_fs (nlen pre) q f) ->
    parse_url dbg hp hpo hd None None (pre ++ R) = POk (qf_url pre se ue hs he hi pt ps q f).

Lemma front_opaque sch P q f : opaque_ok sch P q f ->
  qf_front (opaque_pre sch P) STNotSpecial (nlen sch) (nlen (sch ++ [58])) (nlen (sch ++ [58])) (nlen (sch ++ [58]))
           HI_None None (nlen (sch ++ [58])).
Proof.
  intros K R q' f' HR Hne Hu Hl Hpqf. destruct K as [Ksch Kns KP KPq KPh Kq Kf Klast Kb1 Kbq Kbf].
  assert (edge_ok (opaque_pre sch P ++ R)) as He.
  { split; [unfold opaque_pre; rewrite <- !app_assoc; apply scheme_first_ok; exact Ksch | apply first_ok_rev_app2; assumption]. }
  unfold parse_url. rewrite trim_c0_id by exact He.
  replace (opaque_pre sch P ++ R) with (sch ++ 58 :: P ++ R) by (unfold opaque_pre; rewrite <- !app_assoc; reflexivity).
  rewrite parse_scheme_canon by exact Ksch.
  unfold parse_with_scheme. rewrite Kns.
  assert (nlen sch <= U32_MAX_P) as Hb0 by (rewrite nlen_app in Kb1; lia).
  rewrite to_u32_ok by exact Hb0. cbn [pbind].
  assert (usv_list (P ++ R)) as HuPR.
  { apply usv_app. split; [apply ascii_usv; apply (clean_ascii T_CONTROLS); exact KP | exact Hu]. }
  assert (inp_split_prefix_char 47 (P ++ R) = None) as H47.
  { unfold inp_split_prefix_char. destruct P as [|c r].
    - cbn [app]. destruct R as [|c r]; [reflexivity|]. destruct HR as [Hq Ht].
      rewrite inp_next_cons by exact Ht. unfold is_qh in Hq. replace (c =? 47) with false by lia. reflexivity.
    - cbn [forallb] in KPq. apply andb_true_iff in KPq. destruct KPq as [Hc _].
      unfold not_tnl_qh, not_tnl in Hc.
      cbn [app]. rewrite inp_next_cons by (destruct (is_tnl c); [discriminate | reflexivity]).
      cbn [starts_with] in KPh. rewrite andb_true_r in KPh. rewrite N.eqb_sym, KPh. reflexivity. }
  rewrite pns_opaque_eval by assumption.
  rewrite to_u32_ok by exact Kb1. cbn [pbind].
  destruct (opaque_of_canon P R KP KPq HR) as [C1 C2]. rewrite C1, C2.
  rewrite Hpqf. reflexivity.
Qed.

Lemma front_noauth sch segs last q f : noauth_ok sch segs last q f ->
  qf_front (noauth_pre sch (path_text segs last)) STNotSpecial (nlen sch) (nlen (sch ++ [58])) (nlen (sch ++ [58]))
           (nlen (sch ++ [58])) HI_None None (nlen (sch ++ [58]) + nlen (marker_of (path_text segs last))).
Proof.
  intros K R q' f' HR Hne Hu Hl Hpqf. destruct K as [Ksch Kns Ksegs Klast Kq Kf Kb1 Kbq Kbf]. set (T := path_text segs last) in *.
  set (body := segs_text segs ++ last).
  assert (forallb above_space body = true) as Hbody.
  { unfold body. rewrite forallb_app, (segs_text_above segs Ksegs), (good_seg_above last Klast). reflexivity. }
  assert (T = 47 :: body) as ET by reflexivity.
  assert (edge_ok (noauth_pre sch T ++ R)) as He.
  { split; [unfold noauth_pre; rewrite <- !app_assoc; apply scheme_first_ok; exact Ksch | apply first_ok_rev_app2; assumption]. }
  unfold parse_url. rewrite trim_c0_id by exact He.
  replace (noauth_pre sch T ++ R) with (sch ++ 58 :: marker_of T ++ T ++ R) by (unfold noauth_pre; rewrite <- !app_assoc; reflexivity).
  rewrite parse_scheme_canon by exact Ksch.
  unfold parse_with_scheme. rewrite Kns.
  assert (nlen sch <= U32_MAX_P) as Hb0 by (rewrite nlen_app in Kb1; lia).
  rewrite to_u32_ok by exact Hb0. cbn [pbind].
  unfold parse_non_special.
  assert (forall hh, parse_path_loop dbg CUrlParser STNotSpecial (nlen (sch ++ [58])) (body ++ R)
                     ((sch ++ [58]) ++ [47]) (nlen ((sch ++ [58]) ++ [47])) [] hh
                     = POk ((sch ++ [58]) ++ T, hh, R)) as Hloop.
  { intros hh. unfold body. rewrite <- app_assoc. rewrite path_loop_canon by assumption.
    rewrite ET. unfold body. rewrite <- !app_assoc. reflexivity. }
  assert (starts_with [47] T = true) as HT1 by (rewrite ET; reflexivity).
  pose proof (wqf_noauth_eq hp hpo None sch T R HT1) as Hw. cbv zeta in Hw. rewrite Hpqf in Hw. cbn [pbind] in Hw.
  unfold marker_of in *. rewrite ET in *.
  destruct (starts_with s_ss (47 :: body)) eqn:Ess.
  - assert (exists b', body = 47 :: b') as [b' Eb].
    { unfold s_ss in Ess. cbn [starts_with] in Ess. destruct body as [|b0 b']; [discriminate|].
      apply andb_true_iff in Ess. destruct Ess as [_ Ess]. apply andb_true_iff in Ess. destruct Ess as [Ess _].
      apply N.eqb_eq in Ess. subst b0. exists b'. reflexivity. }
    cbn [app].
    unfold s_ss. cbn [inp_split_prefix_str].
    rewrite inp_next_cons by reflexivity. replace (47 =? 47) with true by reflexivity.
    rewrite inp_next_cons by reflexivity. replace (46 =? 47) with false by reflexivity.
    rewrite to_u32_ok by exact Kb1. cbn [pbind].
    unfold inp_split_prefix_char. rewrite inp_next_cons by reflexivity. replace (47 =? 47) with true by reflexivity.
    unfold parse_path. rewrite Eb. cbn [app]. rewrite (loop_marker dbg hp hpo) by apply ewb_snoc.
    change (47 :: b' ++ R) with ((47 :: b') ++ R). rewrite <- Eb.
    rewrite Hloop. cbn [pbind]. rewrite Eb in Hw. cbn [app] in Hw. rewrite <- Eb in Hw.
    rewrite Hw. reflexivity.
  - cbn [app] in *. 
    assert (inp_split_prefix_str s_ss (47 :: body ++ R) = None) as E0.
    { unfold s_ss. cbn [inp_split_prefix_str]. rewrite inp_next_cons by reflexivity. replace (47 =? 47) with true by reflexivity.
      unfold s_ss in Ess. cbn [starts_with] in Ess. replace (47 =? 47) with true in Ess by reflexivity. cbn [andb] in Ess.
      destruct body as [|b0 b'].
      - cbn [app]. destruct R as [|c r]; [reflexivity|]. destruct HR as [Hq Ht]. rewrite inp_next_cons by exact Ht.
        unfold is_qh in Hq. replace (c =? 47) with false by lia. reflexivity.
      - cbn [app]. cbn [forallb] in Hbody. apply andb_true_iff in Hbody. destruct Hbody as [Hb0' _].
        rewrite inp_next_cons by (apply above_not_tnl; exact Hb0'). rewrite andb_true_r in Ess. rewrite N.eqb_sym, Ess. reflexivity. }
    rewrite E0.
    rewrite to_u32_ok by exact Kb1. cbn [pbind].
    unfold inp_split_prefix_char. rewrite inp_next_cons by reflexivity. replace (47 =? 47) with true by reflexivity.
    unfold parse_path. rewrite Hloop. cbn [pbind].
    rewrite Hw. reflexivity.
Qed.

(* URLs with an authority: the four states on canonical text, any tail *)
Lemma hi_none_ui st sch ui h pt p q f : auth_ok hp hpo hd st sch ui h pt p q f -> hi_of_host h = HI_None -> ui = UNone.
Proof.
  intros K E. apply (ak_emp _ _ _ _ _ _ _ _ _ _ _ K). apply hi_none. rewrite E. reflexivity.
Qed.

Lemma phap_canon st sch ui h pt X : st_is_file st = false -> host_ok hp hpo hd st h -> (h = HDomain [] -> pt = None) ->
  port_ok (default_port sch) pt -> tail_ok X -> nlen (auth_front hd sch ui h pt) <= U32_MAX_P ->
  parse_host_and_port hp hpo hd CUrlParser st (nlen sch) (((sch ++ [58]) ++ [47; 47]) ++ ui_text ui) (hd h ++ port_text pt ++ X)
  = POk (auth_front hd sch ui h pt, nlen (((sch ++ [58]) ++ [47; 47]) ++ ui_text ui) + nlen (hd h), hi_of_host h, pt, X).
Proof.
  intros Hnf Kh Kemp Kpt HX Kb. pose proof (front_len hd sch ui h pt) as FL.
  rewrite phap_unfold.
  rewrite (parse_host_canon hp hpo hd HRT st Hnf h pt _ Kh Kemp HX). cbn [pbind].
  rewrite (hap_tail_canon hp hpo hd st (nlen sch) _ h pt _ Kh Kemp); [| | exact HX | clear - Kb FL; llia].
  2:{ replace (nfirstn (nlen sch) ((((sch ++ [58]) ++ [47; 47]) ++ ui_text ui) ++ hd h)) with sch; [exact Kpt|].
      rewrite <- !app_assoc. symmetry. apply nfirstn_app_len. }
  rewrite (front_eq hd). reflexivity.
Qed.

Lemma auth_pre_shape sch ui h pt p R :
  auth_pre hd sch ui h pt p ++ R = sch ++ 58 :: 47 :: 47 :: ui_text ui ++ hd h ++ port_text pt ++ pth_text p ++ R.
Proof. unfold auth_pre, auth_front. rewrite <- !app_assoc. reflexivity. Qed.

Lemma front_auth sch ui h pt p q f : auth_ok hp hpo hd STNotSpecial sch ui h pt p q f ->
  qf_front (auth_pre hd sch ui h pt p) STNotSpecial (nlen sch) (nlen sch + 3 + ui_ulen ui) (nlen sch + 3 + nlen (ui_text ui))
           (nlen sch + 3 + nlen (ui_text ui) + nlen (hd h)) (hi_of_host h) pt (nlen (auth_front hd sch ui h pt)).
Proof.
  intros K R q' f' HR Hne Hu Hl Hpqf. rewrite <- auth_url_qf. pose proof (hi_none_ui _ _ _ _ _ _ _ _ K) as Hemp.
  destruct K as [Ksch Kst Kui Kh Kemp Kpt Kp Kq Kf Kb Kbq Kbf].
  pose proof (pth_tail p _ HR) as Htail. pose proof (front_len hd sch ui h pt) as FL. pose proof (ui_ulen_le ui) as UL.
  rewrite auth_pre_shape.
  rewrite parse_url_ads_nonspecial; [| exact Ksch | exact Kst | clear - Kb FL; lia |].
  2:{ rewrite <- auth_pre_shape. split; [rewrite auth_pre_shape; apply scheme_first_ok; exact Ksch | apply first_ok_rev_app2; assumption]. }
  apply (ads_compose dbg hp hpo hd None STNotSpecial sch ui h pt p q' f' _ (hd h ++ port_text pt ++ pth_text p ++ R) (pth_text p ++ R) R true).
  - exact Kb.
  - exact Hemp.
  - apply parse_userinfo_canon; [exact Kui | | clear - Kb FL UL; llia].
    apply (auth_scan hp hpo hd HRT STNotSpecial h pt _ Kh (fun E => proj2 (Kemp E)) (port_ok_le _ _ Kpt) Htail).
  - apply phap_canon; try assumption; [reflexivity | exact (fun E => proj2 (Kemp E))].
  - apply pps_canon; assumption.
  - exact Hpqf.
Qed.

Lemma front_special sch ui h pt p q f : auth_ok hp hpo hd STSpecialNotFile sch ui h pt p q f -> pth_ok_sp p ->
  qf_front (auth_pre hd sch ui h pt p) STSpecialNotFile (nlen sch) (nlen sch + 3 + ui_ulen ui) (nlen sch + 3 + nlen (ui_text ui))
           (nlen sch + 3 + nlen (ui_text ui) + nlen (hd h)) (hi_of_host h) pt (nlen (auth_front hd sch ui h pt)).
Proof.
  intros K Kps R q' f' HR Hne Hu Hl Hpqf. rewrite <- auth_url_qf. pose proof (hi_none_ui _ _ _ _ _ _ _ _ K) as Hemp.
  destruct K as [Ksch Kst Kui Kh Kemp Kpt Kp Kq Kf Kb Kbq Kbf].
  destruct p as [[segs last]|]; [|contradiction]. destruct Kps as [Ksg Kla].
  pose proof (pth_tail (Some (segs, last)) _ HR) as Htail. pose proof (front_len hd sch ui h pt) as FL. pose proof (ui_ulen_le ui) as UL.
  rewrite auth_pre_shape.
  rewrite parse_url_ads_special; [| exact Ksch | exact Kst | clear - Kb FL; lia | | apply (rest_head hp hpo hd); assumption].
  2:{ rewrite <- auth_pre_shape. split; [rewrite auth_pre_shape; apply scheme_first_ok; exact Ksch | apply first_ok_rev_app2; assumption]. }
  apply (ads_compose dbg hp hpo hd None STSpecialNotFile sch ui h pt (Some (segs, last)) q' f' _
           (hd h ++ port_text pt ++ pth_text (Some (segs, last)) ++ R) (pth_text (Some (segs, last)) ++ R) R true).
  - exact Kb.
  - exact Hemp.
  - apply parse_userinfo_canon; [exact Kui | | clear - Kb FL UL; llia].
    apply (auth_scan hp hpo hd HRT STSpecialNotFile h pt _ Kh (fun E => proj2 (Kemp E)) (port_ok_le _ _ Kpt) Htail).
  - apply phap_canon; try assumption; [reflexivity | exact (fun E => proj2 (Kemp E))].
  - cbn [pth_text]. unfold auth_pre. cbn [pth_text]. apply pps_canon_sp; try assumption. apply (front_not_slash hp hpo hd). exact Kh.
  - exact Hpqf.
Qed.

End Front.

(* the spliced texts, read off the record *)
Definition frag_cut (u : url) : N := match fragment_start u with Some n => n | None => nlen (ser u) end.
Definition query_cut (u : url) : N := match query_start u with Some n => n | None => frag_cut u end.
(* the old serialization with '#' x in the fragment position / '?' x in the query position *)
Definition splice_fragment (u : url) (x : list N) : list N := nfirstn (frag_cut u) (ser u) ++ 35 :: x.
Definition splice_query (u : url) (x : list N) : list N :=
  nfirstn (query_cut u) (ser u) ++ 63 :: x ++ nskipn (frag_cut u) (ser u).

Lemma qf_frag_cut pre se ue hs he hi pt ps q f :
  nfirstn (frag_cut (qf_url pre se ue hs he hi pt ps q f)) (ser (qf_url pre se ue hs he hi pt ps q f)) = pre ++ qf_qtext q
  /\ nskipn (frag_cut (qf_url pre se ue hs he hi pt ps q f)) (ser (qf_url pre se ue hs he hi pt ps q f)) = qf_ftext f.
Proof.
  unfold frag_cut, qf_url. cbn [fragment_start ser]. unfold qf_text. destruct f as [y|]; cbn [qf_fs qf_ftext].
  - rewrite <- nlen_app, app_assoc. split; [apply nfirstn_app_len | apply nskipn_app_len].
  - rewrite app_nil_r. split; [apply nfirstn_all; lia|]. rewrite <- (app_nil_r (pre ++ qf_qtext q)) at 2. apply nskipn_app_len.
Qed.

Lemma qf_query_cut pre se ue hs he hi pt ps q f :
  nfirstn (query_cut (qf_url pre se ue hs he hi pt ps q f)) (ser (qf_url pre se ue hs he hi pt ps q f)) = pre.
Proof.
  unfold query_cut. destruct q as [t|].
  - unfold qf_url. cbn [query_start qf_qs ser]. apply nfirstn_app_len.
  - change (nfirstn (frag_cut (qf_url pre se ue hs he hi pt ps None f)) (ser (qf_url pre se ue hs he hi pt ps None f)) = pre).
    rewrite (proj1 (qf_frag_cut pre se ue hs he hi pt ps None f)). cbn [qf_qtext]. apply app_nil_r.
Qed.

Section SpliceQF.
Variable dbg : bool.
Variable hp hpo : list N -> result host.
Variable hd : host -> list N.
Hypothesis HRT : HostRT hp hpo hd.

Notation Canon := (Canon hp hpo hd).

(* every canonical record has the shape of C02_SetQF with a front the parser runs through *)
Lemma Canon_qf u : Canon u ->
  exists pre st se ue hs he hi pt ps q f,
    u = qf_url pre se ue hs he hi pt ps q f /\ qf_front dbg hp hpo hd pre st se ue hs he hi pt ps
    /\ se <= nlen pre /\ scheme_type_of (nfirstn se pre) = st
    /\ opt_clean (query_set st) q /\ opt_clean T_FRAGMENT f.
Proof.
  intros [sch P q f K | sch segs last q f K | sch ui h pt p q f K | sch ui h pt p q f K Kp].
  - destruct (opaque_pre_sch sch P) as [S1 S2].
    do 11 eexists. split; [apply opaque_url_qf|]. split; [exact (front_opaque dbg hp hpo hd sch P q f K)|].
    split; [exact S2|]. split; [rewrite S1; exact (ok_ns _ _ _ _ K)|]. split; [exact (ok_q _ _ _ _ K) | exact (ok_f _ _ _ _ K)].
  - destruct (noauth_pre_sch sch (path_text segs last)) as [S1 S2].
    do 11 eexists. split; [apply noauth_url_qf|]. split; [exact (front_noauth dbg hp hpo hd sch segs last q f K)|].
    split; [exact S2|]. split; [rewrite S1; exact (nk_ns _ _ _ _ _ K)|]. split; [exact (nk_q _ _ _ _ _ K) | exact (nk_f _ _ _ _ _ K)].
  - destruct (auth_pre_sch hd sch ui h pt p) as [S1 S2].
    do 11 eexists. split; [apply auth_url_qf|]. split; [exact (front_auth dbg hp hpo hd HRT sch ui h pt p q f K)|].
    split; [exact S2|]. split; [rewrite S1; exact (ak_st _ _ _ _ _ _ _ _ _ _ _ K)|].
    split; [exact (ak_q _ _ _ _ _ _ _ _ _ _ _ K) | exact (ak_f _ _ _ _ _ _ _ _ _ _ _ K)].
  - destruct (auth_pre_sch hd sch ui h pt p) as [S1 S2].
    do 11 eexists. split; [apply auth_url_qf|]. split; [exact (front_special dbg hp hpo hd HRT sch ui h pt p q f K Kp)|].
    split; [exact S2|]. split; [rewrite S1; exact (ak_st _ _ _ _ _ _ _ _ _ _ _ K)|].
    split; [exact (ak_q _ _ _ _ _ _ _ _ _ _ _ K) | exact (ak_f _ _ _ _ _ _ _ _ _ _ _ K)].
Qed.

Lemma qtext_usv S q : opt_clean S q -> usv_list (qf_qtext q).
Proof.
  destruct q as [t|]; [|constructor]. cbn [opt_clean qf_qtext]. intros H.
  apply usv_cons. split; [unfold is_usv; lia | apply ascii_usv; apply (clean_ascii S); exact H].
Qed.

(* WHOLE-URL agreement for set_fragment: the record the setter returns is the record the parser returns for the
   old serialization with '#' and the RAW argument in the fragment position.  The argument must not end in a C0
   control or a space (Url::parse trims them from the input; the setter encodes them) - nothing else. *)
Theorem splice_agreement_set_fragment u x u' : Canon u -> usv_list x -> first_ok (rev (35 :: x)) ->
  set_fragment dbg u (Some x) = Some u' -> nlen (ser u') <= U32_MAX_P ->
  parse_url dbg hp hpo hd None None (splice_fragment u x) = POk u'.
Proof.
  intros C Hx Hl. destruct (Canon_qf u C) as (pre & st & se & ue & hs & he & hi & pt & ps & q & f & -> & Hfront & Hse & Hst & Hq & Hf).
  rewrite set_fragment_qf_some by exact Hx. intros E Hb. inversion E; subst u'. clear E.
  unfold splice_fragment. rewrite (proj1 (qf_frag_cut pre se ue hs he hi pt ps q f)). rewrite <- app_assoc.
  apply Hfront.
  - destruct q as [t|]; cbn [qf_qtext app qh_ok]; split; reflexivity.
  - destruct q; discriminate.
  - apply usv_app. split; [exact (qtext_usv _ q Hq)|]. apply usv_cons. split; [unfold is_usv; lia | exact Hx].
  - apply first_ok_rev_app2; [discriminate | exact Hl].
  - apply pqf_canon_raw_f; [exact Hx | exact Hq | exact Hb].
Qed.

(* WHOLE-URL agreement for set_query: argument free of '#' (the parser's query state stops there, the setter
   encodes it); when the URL has no fragment the argument must not end in a C0 control or a space *)
Theorem splice_agreement_set_query u x u' : Canon u -> usv_list x -> no_hash x = true ->
  (fragment_start u = None -> first_ok (rev (63 :: x))) ->
  set_query dbg u (Some x) = Some u' -> nlen (ser u') <= U32_MAX_P ->
  parse_url dbg hp hpo hd None None (splice_query u x) = POk u'.
Proof.
  intros C Hx Hh Hl. destruct (Canon_qf u C) as (pre & st & se & ue & hs & he & hi & pt & ps & q & f & -> & Hfront & Hse & Hst & Hq & Hf).
  rewrite (set_query_qf_some dbg pre se ue hs he hi pt ps (nfirstn se pre) eq_refl Hse q f x Hx). rewrite Hst.
  intros E Hb. inversion E; subst u'. clear E.
  unfold splice_query. rewrite qf_query_cut, (proj2 (qf_frag_cut pre se ue hs he hi pt ps q f)).
  apply Hfront.
  - split; reflexivity.
  - discriminate.
  - apply usv_cons. split; [unfold is_usv; lia|]. apply usv_app. split; [exact Hx|].
    destruct f as [y|]; [|constructor]. cbn [qf_ftext]. apply usv_cons. split; [unfold is_usv; lia|].
    apply ascii_usv. apply (clean_ascii T_FRAGMENT). exact Hf.
  - destruct f as [y|]; cbn [qf_ftext].
    + change (63 :: x ++ 35 :: y) with ((63 :: x) ++ 35 :: y). apply first_ok_rev_app; [discriminate|].
      constructor; [reflexivity|]. apply forallb_above. exact (clean_forallb _ _ y kept_FRAGMENT_above Hf).
    + rewrite app_nil_r. apply Hl. reflexivity.
  - apply pqf_raw_q_canon; [exact Hx | exact Hh | exact Hf | exact Hb].
Qed.

End SpliceQF.
