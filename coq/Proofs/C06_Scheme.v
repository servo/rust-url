(* Proofs/C06_Scheme.v - set_scheme on a well-formed record: the serialization from ':' on is kept,
   every offset moves by the change of length, and the port is re-normalised against the new
   scheme's default. *)
From RU Require Import Base.Prelude Base.Utf8 Model.AsciiSet Gen.Tables Model.PercentEncoding
  Model.HostT Model.UrlRecord Model.Parser Model.Setters Model.WF
  Proofs.ListN Proofs.C03_WF Proofs.C06_List Proofs.C06_WFI Proofs.C06_Tail Proofs.C06_Suffix Proofs.C06_Front
  Proofs.C06_Port.

(* what parse_scheme returns *)
Lemma scheme_char_lower c : is_lower c = true -> scheme_char c = true.
Proof. intros H. unfold scheme_char, is_alnum, is_alpha. rewrite H. rewrite orb_true_r. reflexivity. Qed.

Lemma is_lower_of_upper c : is_upper c = true -> is_lower (c + 32) = true.
Proof. unfold is_upper, is_lower. lia. Qed.

Lemma parse_scheme_loop_chars ctx l : forall acc sch rem,
  parse_scheme_loop ctx acc l = Some (sch, rem) -> forallb scheme_char (rev acc) = true ->
  forallb scheme_char sch = true.
Proof.
  induction l as [|c r IH]; intros acc sch rem H Hacc; cbn [parse_scheme_loop] in H.
  - destruct (ctx_eqb ctx CSetter); [|discriminate]. inversion H; subst. exact Hacc.
  - destruct (is_tnl c); [eapply IH; eassumption|].
    destruct (is_lower c || is_digit c || (c =? 43) || (c =? 45) || (c =? 46)) eqn:E1.
    + eapply IH; [exact H|]. cbn [rev]. apply forallb_app_iff. split; [exact Hacc|]. cbn [forallb].
      rewrite andb_true_r. unfold scheme_char, is_alnum, is_alpha.
      repeat (apply orb_true_iff in E1; destruct E1 as [E1|E1]); rewrite E1; rewrite ?orb_true_r; reflexivity.
    + destruct (is_upper c) eqn:E2.
      * eapply IH; [exact H|]. cbn [rev]. apply forallb_app_iff. split; [exact Hacc|]. cbn [forallb].
        rewrite andb_true_r. apply scheme_char_lower. apply is_lower_of_upper. exact E2.
      * destruct (c =? 58); [|discriminate]. inversion H; subst. exact Hacc.
Qed.

Lemma parse_scheme_loop_prefix ctx l : forall acc sch rem,
  parse_scheme_loop ctx acc l = Some (sch, rem) -> exists t, sch = rev acc ++ t.
Proof.
  induction l as [|c r IH]; intros acc sch rem H; cbn [parse_scheme_loop] in H.
  - destruct (ctx_eqb ctx CSetter); [|discriminate]. inversion H; subst. exists []. symmetry. apply app_nil_r.
  - destruct (is_tnl c); [eapply IH; eassumption|].
    destruct (is_lower c || is_digit c || (c =? 43) || (c =? 45) || (c =? 46)).
    + destruct (IH _ _ _ H) as (t & ->). cbn [rev]. rewrite <- app_assoc. eexists. reflexivity.
    + destruct (is_upper c).
      * destruct (IH _ _ _ H) as (t & ->). cbn [rev]. rewrite <- app_assoc. eexists. reflexivity.
      * destruct (c =? 58); [|discriminate]. inversion H; subst. exists []. symmetry. apply app_nil_r.
Qed.

Lemma parse_scheme_head ctx l sch rem : parse_scheme ctx l = Some (sch, rem) ->
  exists c r, sch = c :: r /\ is_alpha c = true.
Proof.
  unfold parse_scheme, inp_starts_with_pred, inp_next.
  induction l as [|c r IH]; cbn [drop_while]; [discriminate|].
  cbn [parse_scheme_loop]. destruct (is_tnl c) eqn:Et; [exact IH|].
  intros H. destruct (is_alpha c) eqn:Ea; [|discriminate].
  unfold is_alpha in Ea. apply orb_true_iff in Ea.
  destruct (is_lower c) eqn:El; cbn [orb] in H.
  - destruct (parse_scheme_loop_prefix _ _ _ _ _ H) as (t & ->). cbn [rev app]. do 2 eexists. split; [reflexivity|].
    unfold is_alpha. rewrite El. apply orb_true_r.
  - destruct Ea as [Eu|?]; [|discriminate].
    assert (is_digit c = false) as Ed by (unfold is_upper, is_digit in *; lia).
    assert ((c =? 43) = false /\ (c =? 45) = false /\ (c =? 46) = false) as (E1 & E2 & E3)
      by (unfold is_upper in Eu; lia).
    rewrite Ed, E1, E2, E3, Eu in H. cbn [orb] in H.
    destruct (parse_scheme_loop_prefix _ _ _ _ _ H) as (t & ->). cbn [rev app]. do 2 eexists. split; [reflexivity|].
    unfold is_alpha. rewrite (is_lower_of_upper c Eu). apply orb_true_r.
Qed.

Lemma parse_scheme_chars ctx l sch rem : parse_scheme ctx l = Some (sch, rem) -> forallb scheme_char sch = true.
Proof.
  unfold parse_scheme. destruct (inp_starts_with_pred is_alpha l); [|discriminate].
  intros H. eapply parse_scheme_loop_chars; [exact H | reflexivity].
Qed.

Lemma default_port_special s d : default_port s = Some d ->
  st_is_special (scheme_type_of s) = true /\ list_eqb s s_file = false.
Proof.
  unfold default_port, scheme_type_of.
  destruct (list_eqb s s_http) eqn:E1; [apply list_eqb_spec in E1; subst; intros _; split; reflexivity|].
  destruct (list_eqb s s_ws) eqn:E2; [apply list_eqb_spec in E2; subst; intros _; split; reflexivity|].
  destruct (list_eqb s s_https) eqn:E3; [apply list_eqb_spec in E3; subst; intros _; split; reflexivity|].
  destruct (list_eqb s s_wss) eqn:E4; [apply list_eqb_spec in E4; subst; intros _; split; reflexivity|].
  destruct (list_eqb s s_ftp) eqn:E5; [apply list_eqb_spec in E5; subst; intros _; split; reflexivity|].
  cbn [orb]. discriminate.
Qed.

Lemma norm_port_no_default s p : default_port s = None -> norm_port s p = p.
Proof. intros E. unfold norm_port. rewrite E. destruct p; reflexivity. Qed.

(* the record after the scheme text is replaced *)
Definition with_scheme (u : url) (new : list N) : url :=
  let b := scheme_end u in let b' := nlen new in
  mkUrl (new ++ nskipn b (ser u)) b' (shift b b' (username_end u)) (shift b b' (host_start u))
        (shift b b' (host_end u)) (hosti u) (port u) (shift b b' (path_start u))
        (option_map (shift b b') (query_start u)) (option_map (shift b b') (fragment_start u)).

Section WithScheme.
Variables (dbg : bool) (u : url) (new : list N).
Hypothesis W : wf_b u = true.
Hypothesis HT : host_text_ok u.
Hypothesis Hhead : exists c r, new = c :: r /\ is_alpha c = true.
Hypothesis Hchars : forallb scheme_char new = true.

Let u' := with_scheme u new.
Let b := scheme_end u.
Let b' := nlen new.

Lemma ws_suf : agree_suf b b' (ser u) (ser u').
Proof. unfold agree_suf. change (ser u') with (new ++ nskipn b (ser u)). apply nskipn_app_exact. Qed.

Lemma ws_len : nlen (ser u') = b' + (nlen (ser u) - b).
Proof. change (ser u') with (new ++ nskipn b (ser u)). rewrite nlen_app, nlen_nskipn. reflexivity. Qed.

Lemma ws_byte i c : b <= i -> byte_eqb (ser u') (shift b b' i) c = byte_eqb (ser u) i c.
Proof. intros H. apply (suf_byte_eqb b b'); [apply ws_suf | exact H | reflexivity]. Qed.

Lemma ws_piece i j : b <= i -> i <= j ->
  nfirstn (shift b b' j - shift b b' i) (nskipn (shift b b' i) (ser u')) = nfirstn (j - i) (nskipn i (ser u)).
Proof.
  intros Hi Hij. replace (shift b b' j - shift b b' i) with (j - i) by (unfold shift; lia).
  apply (suf_piece b b'); [apply ws_suf | exact Hi | reflexivity].
Qed.

Lemma ws_tail : shifted_tail b b' u u'.
Proof. repeat split. Qed.
Lemma ws_sauth : shifted_auth b b' u u'.
Proof. repeat split. Qed.

Lemma ws_has_authority : has_authority_b u' = has_authority_b u.
Proof.
  unfold has_authority_b. change (scheme_end u') with (nlen new). change (ser u') with (new ++ nskipn b (ser u)).
  rewrite nskipn_app_exact. reflexivity.
Qed.

Lemma ws_wf : wf_b u' = true.
Proof.
  destruct (wf_scheme_facts u W) as (Hse & Hcolon & Hselt).
  pose proof (wf_se_lt_ps u W) as Hps. pose proof (path_start_le_len u W) as Hpl.
  pose proof W as W0. apply wf_b_iff in W0. destruct W0 as (S & AU & Q).
  pose proof ws_len as Hl.
  destruct Hhead as (c0 & r0 & En & Hal).
  assert (1 <= b') as Hb1 by (subst b'; rewrite En, nlen_cons; lia).
  apply wf_b_iff. split; [|split].
  - unfold scheme_ok. change (scheme_end u') with b'. splits.
    + exact Hb1.
    + exists c0. split; [|exact Hal]. change (ser u') with (new ++ nskipn b (ser u)). rewrite En. reflexivity.
    + change (ser u') with (new ++ nskipn b (ser u)). subst b'. rewrite nfirstn_app_exact. exact Hchars.
    + replace b' with (shift b b' b) at 1 by (unfold shift; lia). rewrite ws_byte by lia. exact Hcolon.
  - rewrite ws_has_authority. destruct (has_authority_b u) eqn:Ha.
    + destruct AU as [(A1 & A2 & A3 & A4 & A5 & U & Hn & P) PS]. split.
      * unfold auth_ok. change (scheme_end u') with b'. change (username_end u') with (shift b b' (username_end u)).
        change (host_start u') with (shift b b' (host_start u)). change (host_end u') with (shift b b' (host_end u)).
        change (path_start u') with (shift b b' (path_start u)). change (hosti u') with (hosti u).
        split; [unfold shift; lia|]. split; [unfold shift; lia|]. split; [unfold shift; lia|].
        split; [unfold shift; lia|]. split; [rewrite Hl; unfold shift; lia|].
        split; [|split].
        -- unfold userinfo_ok. change (scheme_end u') with b'. change (username_end u') with (shift b b' (username_end u)).
           change (host_start u') with (shift b b' (host_start u)).
           destruct U as [(U1 & U2 & U3)|[(U1 & U2 & U3)|(U1 & U2)]].
           ++ left. rewrite ws_byte by lia. splits; [unfold shift; lia | unfold shift; lia | exact U3].
           ++ right. left. rewrite ws_byte by lia.
              replace (shift b b' (host_start u) - 1) with (shift b b' (host_start u - 1)) by (unfold shift; lia).
              rewrite ws_byte by lia. splits; [exact U1 | unfold shift; lia | exact U3].
           ++ right. right. rewrite ws_byte by lia. split; [exact U1 | unfold shift; lia].
        -- intros E. specialize (Hn E). unfold shift. lia.
        -- apply (asfx_port_ok u u' b b' W Ha ws_suf); [lia | rewrite Hl; lia | apply ws_tail | apply ws_sauth].
      * apply (sfx_pathstart_ok u u' b b' W ws_suf); [lia | rewrite Hl; lia | apply ws_tail | exact PS].
    + destruct AU as (H1 & H2 & H3 & H4 & H5 & H6 & H7). unfold noauth_ok.
      change (scheme_end u') with b'. change (username_end u') with (shift b b' (username_end u)).
      change (host_start u') with (shift b b' (host_start u)). change (host_end u') with (shift b b' (host_end u)).
      change (path_start u') with (shift b b' (path_start u)). change (hosti u') with (hosti u). change (port u') with (port u).
      split; [unfold shift; lia|]. split; [unfold shift; lia|]. split; [unfold shift; lia|].
      split; [exact H4|]. split; [exact H5|]. split; [rewrite Hl; unfold shift; lia|].
      destruct H7 as [H7|(E1 & E2 & E3 & E4)]; [left; unfold shift; lia|]. right.
        replace (b' + 1) with (shift b b' (b + 1)) by (unfold shift; lia).
        replace (b' + 2) with (shift b b' (b + 2)) by (unfold shift; lia).
        rewrite !ws_byte by lia. split; [unfold shift; lia|]. split; [exact E2|]. split; [exact E3|].
        rewrite (sfx_skip u u' b b' ws_suf) by lia. exact E4.
  - apply (sfx_qf_ok u u' b b' W ws_suf); [lia | rewrite Hl; lia | apply ws_tail].
Qed.

Lemma ws_host_text_ok : host_text_ok u'.
Proof.
  intros Hh. change (has_host u') with (has_host u) in Hh. destruct (HT Hh) as (T1 & T2 & T3).
  pose proof (has_host_authority u W Hh) as Ha. pose proof (af_ue (wf_auth_facts u W Ha)). pose proof (af_hs (wf_auth_facts u W Ha)).
  change (host_start u') with (shift b b' (host_start u)). change (host_end u') with (shift b b' (host_end u)).
  rewrite (ws_byte (host_start u) 58), (ws_byte (host_start u) 64) by (unfold b; lia).
  split; [unfold shift, b; lia | tauto].
Qed.

Lemma ws_scheme : scheme u' = Some new.
Proof.
  rewrite (scheme_eval u' ws_wf). f_equal. unfold piece. cbn [pidx]. rewrite N.sub_0_r, nskipn_0.
  change (scheme_end u') with (nlen new). change (ser u') with (new ++ nskipn b (ser u)). apply nfirstn_app_exact.
Qed.

Lemma ws_back : same_back dbg u u'.
Proof.
  pose proof (wf_se_lt_ps u W). pose proof ws_len as Hl. pose proof (path_start_le_len u W).
  apply (sfx_back dbg u u' b b' W ws_wf ws_suf); [unfold b; lia | rewrite Hl; lia | apply ws_tail].
Qed.

Lemma ws_host_str : host_str u' = host_str u.
Proof.
  destruct (has_authority_b u) eqn:Ha.
  - pose proof (wf_auth_facts u W Ha) as F. pose proof (af_ue F); pose proof (af_hs F). pose proof ws_len as Hl.
    pose proof (af_he F); pose proof (af_ps F); pose proof (af_len F).
    apply (asfx_host_str u u' b b' W Ha ws_suf); [unfold b; lia | rewrite Hl; lia | apply ws_sauth | apply ws_wf].
  - rewrite (host_str_eval u' ws_wf), (host_str_eval u W). change (has_host u') with (has_host u).
    pose proof (nf_host (wf_noauth_facts u W Ha)) as E. unfold has_host. rewrite E. reflexivity.
Qed.

Lemma ws_username : username dbg u' = username dbg u.
Proof.
  rewrite (username_eval dbg u' ws_wf), (username_eval dbg u W). f_equal. unfold piece. cbn [pidx].
  rewrite ws_has_authority. change (scheme_end u') with b'. change (username_end u') with (shift b b' (username_end u)).
  destruct (has_authority_b u) eqn:Ha.
  - pose proof (af_ue (wf_auth_facts u W Ha)).
    replace (b' + 3) with (shift b b' (b + 3)) by (unfold shift; lia).
    apply ws_piece; unfold b; lia.
  - pose proof (nf_ue (wf_noauth_facts u W Ha)) as E. rewrite E.
    replace (b' + 1) with (shift b b' (b + 1)) by (unfold shift; lia).
    apply ws_piece; unfold b; lia.
Qed.

Lemma ws_password : password dbg u' = password dbg u.
Proof.
  rewrite (password_piece dbg u' ws_wf), (password_piece dbg u W).
  assert (has_password_b u' = has_password_b u) as Hp.
  { unfold has_password_b. rewrite ws_has_authority. destruct (has_authority_b u) eqn:Ha; [|reflexivity]. cbn [andb].
    pose proof (wf_auth_facts u W Ha) as F. pose proof (af_ue F); pose proof (af_hs F); pose proof (af_he F);
      pose proof (af_ps F); pose proof (af_len F).
    change (username_end u') with (shift b b' (username_end u)). rewrite ws_byte by (unfold b; lia).
    rewrite ws_len.
    replace (shift b b' (username_end u) =? b' + (nlen (ser u) - b)) with (username_end u =? nlen (ser u))
      by (unfold shift, b; lia).
    reflexivity. }
  rewrite Hp. destruct (has_password_b u) eqn:Hpw; [|reflexivity]. do 2 f_equal.
  unfold piece. cbn [pidx]. rewrite Hp, Hpw.
  destruct (has_password_facts u W Hpw) as (G1 & _).
  assert (has_authority_b u = true) as Ha.
  { unfold has_password_b in Hpw. destruct (has_authority_b u); [reflexivity | discriminate]. }
  pose proof (af_ue (wf_auth_facts u W Ha)).
  change (username_end u') with (shift b b' (username_end u)). change (host_start u') with (shift b b' (host_start u)).
  replace (shift b b' (username_end u) + 1) with (shift b b' (username_end u + 1)) by (unfold shift, b; lia).
  replace (shift b b' (host_start u) - 1) with (shift b b' (host_start u - 1)) by (unfold shift, b; lia).
  apply ws_piece; unfold b; lia.
Qed.

End WithScheme.

Lemma set_port_err dbg u p u' st : set_port dbg u p = Some (u', st) -> st <> SOk ->
  cannot_have_credentials_or_port u = Some true.
Proof.
  unfold set_port. intros H Hne.
  destruct (cannot_have_credentials_or_port u) as [[|]|]; cbn [bindo] in H; [reflexivity| |discriminate].
  destruct (scheme u); cbn [bindo] in H; [|discriminate].
  destruct (set_port_internal dbg u _); cbn [bindo] in H; [|discriminate].
  inversion H; subst. contradiction.
Qed.

Lemma chcp_true u : wf_b u = true -> host_text_ok u -> cannot_have_credentials_or_port u = Some true ->
  has_host u = false \/ exists s, scheme u = Some s /\ list_eqb s s_file = true.
Proof.
  intros W HT H. unfold cannot_have_credentials_or_port in H.
  destruct (has_host u) eqn:Hh; [|left; reflexivity]. right. cbn [negb] in H.
  pose proof (has_host_authority u W Hh) as Ha. pose proof (wf_auth_facts u W Ha) as F.
  pose proof (af_he F); pose proof (af_ps F); pose proof (af_len F). destruct (HT Hh) as (T1 & _).
  rewrite (scheme_eval u W) in *. eexists. split; [reflexivity|].
  unfold host_of in H. unfold has_host in Hh.
  destruct (hosti u); cbn [bindo] in H; [discriminate Hh | | inversion H; reflexivity | inversion H; reflexivity].
  - unfold u_slice in H. rewrite slice_o_some in H by lia. cbn [bindo] in H.
    assert (nlen (nfirstn (host_end u - host_start u) (nskipn (host_start u) (ser u))) = host_end u - host_start u) as L
      by (apply nlen_nfirstn; rewrite nlen_nskipn; lia).
    destruct (nfirstn (host_end u - host_start u) (nskipn (host_start u) (ser u))) as [|c r].
    + rewrite nlen_nil in L. lia.
    + cbn [orb] in H. inversion H. reflexivity.
Qed.

Theorem set_scheme_ok dbg u sch : wf_b u = true -> host_text_ok u ->
  exists u' st, set_scheme dbg u sch = Some (u', st)
  /\ (st <> SOk -> u' = u)
  /\ (st = SOk -> exists new rem, parse_scheme CSetter sch = Some (new, rem)
      /\ wf_b u' = true /\ host_text_ok u' /\ scheme u' = Some new
      /\ username dbg u' = username dbg u /\ password dbg u' = password dbg u /\ host_str u' = host_str u
      /\ same_back dbg u u' /\ port u' = norm_port new (port u)).
Proof.
  intros W HT. unfold set_scheme, input_new_no_trim.
  destruct (parse_scheme CSetter sch) as [[new rem]|] eqn:Eps.
  2:{ exists u, SErrUnit. split; [reflexivity|]. split; [reflexivity | discriminate]. }
  unfold u_scheme_type. rewrite (scheme_eval u W). cbn [bindo]. rewrite (has_authority_eval dbg u W). cbn [bindo].
  match goal with |- context [if ?c then Some (u, SErrUnit) else _] => destruct c eqn:C1 end.
  { exists u, SErrUnit. split; [reflexivity|]. split; [reflexivity | discriminate]. }
  match goal with |- context [if ?c then Some (u, SErrUnit) else _] => destruct c eqn:C2 end.
  { exists u, SErrUnit. split; [reflexivity|]. split; [reflexivity | discriminate]. }
  destruct (wf_scheme_facts u W) as (Hse & Hcolon & Hselt).
  pose proof (wf_se_lt_ps u W) as Hps. pose proof (path_start_le_len u W) as Hpl.
  destruct (wf_tail_offsets_ge u (path_start u) W ltac:(lia)) as [Gq Gf].
  assert (scheme_end u <= username_end u /\ scheme_end u <= host_start u /\ scheme_end u <= host_end u) as (G1 & G2 & G3).
  { destruct (has_authority_b u) eqn:Ha.
    - pose proof (wf_auth_facts u W Ha) as F. pose proof (af_ue F); pose proof (af_hs F); pose proof (af_he F). lia.
    - pose proof (wf_noauth_facts u W Ha) as F. rewrite (nf_ue F), (nf_hs F), (nf_he F). lia. }
  rewrite !adjust_ok by lia. rewrite !adjust_opt_ok by (destruct (query_start u), (fragment_start u); try exact I; lia).
  cbn [bindo]. unfold u_slice_from. rewrite slice_from_o_some by lia. cbn [bindo].
  match goal with |- context [set_port dbg ?X _] => change X with (with_scheme u new) end.
  set (u1 := with_scheme u new).
  pose proof (parse_scheme_head _ _ _ _ Eps) as Hhead. pose proof (parse_scheme_chars _ _ _ _ Eps) as Hchars.
  pose proof (ws_wf u new W Hhead Hchars) as W1. fold u1 in W1.
  pose proof (ws_host_text_ok u new W HT) as HT1. fold u1 in HT1.
  assert (match port u1 with Some x => x <= 65535 | None => True end) as Hp.
  { change (port u1) with (port u). destruct (has_authority_b u) eqn:Ha.
    - pose proof (af_port (wf_auth_facts u W Ha)) as P. destruct (port u); [tauto | exact I].
    - rewrite (nf_port (wf_noauth_facts u W Ha)). exact I. }
  destruct (set_port_ok dbg u1 (port u1) W1 HT1 Hp) as (u2 & st & E2 & Herr & Hok).
  rewrite E2. cbn [bindo fst]. exists u2, SOk. split; [reflexivity|]. split; [intros X; contradiction|]. intros _.
  exists new, rem. split; [reflexivity|].
  pose proof (ws_scheme u new W Hhead Hchars) as S1. fold u1 in S1.
  pose proof (ws_username dbg u new W Hhead Hchars) as Un1. fold u1 in Un1.
  pose proof (ws_password dbg u new W Hhead Hchars) as Pw1. fold u1 in Pw1.
  pose proof (ws_host_str u new W Hhead Hchars) as Hs1. fold u1 in Hs1.
  pose proof (ws_back dbg u new W Hhead Hchars) as B1. fold u1 in B1.
  assert (st = SOk \/ st <> SOk) as [Est|Est] by (destruct st; [left; reflexivity | right; discriminate | right; discriminate]).
  - destruct (Hok Est) as (W2 & HT2 & (I1 & I2 & I3 & I4) & (B2a & B2b & B2c) & (s1 & Es1 & P2)).
    destruct B1 as (B1a & B1b & B1c).
    split; [exact W2|]. split; [exact HT2|]. split; [congruence|]. split; [congruence|]. split; [congruence|].
    split; [congruence|]. split; [split; [congruence | split; congruence]|].
    rewrite P2. rewrite S1 in Es1. inversion Es1; subst s1. reflexivity.
  - specialize (Herr Est). subst u2.
    split; [exact W1|]. split; [exact HT1|]. split; [exact S1|]. split; [exact Un1|]. split; [exact Pw1|].
    split; [exact Hs1|]. split; [exact B1|].
    change (port u1) with (port u).
    destruct (default_port new) as [d|] eqn:Ed; [|symmetry; apply norm_port_no_default; exact Ed].
    exfalso. destruct (default_port_special new d Ed) as [Sp Nf].
    pose proof (set_port_err dbg u1 _ _ _ E2 Est) as Ec.
    destruct (chcp_true u1 W1 HT1 Ec) as [Hh|(s1 & Es1 & Ef)].
    + change (has_host u1) with (has_host u) in Hh. rewrite Hh, Sp in C2. cbn [negb andb] in C2.
      rewrite orb_true_r in C2. discriminate.
    + rewrite S1 in Es1. inversion Es1; subst s1. congruence.
Qed.
