(* Proofs/C02_Reach5.v - the histories of C02_Reach4.ReachC3 extended by the mutators whose L2 is proved in
   C02_QHost / C02_SetHostNone / C02_SetPathNoAuth:
     quirks set_hostname, quirks set_host, set_host(None), quirks set_pathname      on every Canon record,
     set_path (C02_SetPathOpaque for opaque paths)                                  on every Canon record,
     path_segments_mut sessions                                                     on opaque paths only (refused),
   each outside the known step classes of Reachable4 (known_step3 = known_step2 + Known_F_C02_10, C02_Stmt4).
   ReachC4: every record of such a history is Canon, hence a fixpoint of re-parsing; ReachC4 is inside Reachable4, the
   quantifier of C02_statement4. *)
From RU Require Import Proofs.C15_Ser.
From Coq Require Import String.
From RU Require Import Base.Prelude Base.Utf8 Model.HostT Model.Host Model.UrlRecord Model.Parser Model.Setters
  Model.WF Model.QueryPairs Proofs.ListN Proofs.C02_Opaque Proofs.C02_PathL1 Proofs.C02_Reach Proofs.C02_AuthParts
  Proofs.C02_AuthWf Proofs.C02_AuthMain Proofs.C02_Hist Proofs.C02_Canon Proofs.C02_JoinTail Proofs.C02_ReachPartial
  Proofs.C02_Form Proofs.C02_Reach3 Proofs.C02_SetHostCanon Proofs.C09_Host Proofs.C02_HistInst Proofs.C02_Reach4
  Proofs.C02_Stmt4 Proofs.C02_QHost Proofs.C02_SetHostNone Proofs.C02_SetPathNoAuth Proofs.C02_SetPathOpaque.
Open Scope N_scope.
Open Scope list_scope.

(* the mutators with a proved L2, given the record they are applied to *)
Definition canon_op4 (u : url) (o : op) : bool :=
  match o with
  | OQHostname _ | OQHost _ | OSetHost None | OQPathname _ | OSetPath _ => true
  | OPathSegments _ => is_cbb u                       (* path_segments_mut() is refused on an opaque path *)
  | _ => canon_op3 u o
  end.

Lemma authority_not_cbb u : has_authority_b u = true -> is_cbb u = false.
Proof.
  unfold has_authority_b, is_cbb. intros H. apply starts_with_split in H.
  replace (scheme_end u + 1) with (1 + scheme_end u) by lia. rewrite <- nskipn_nskipn, H. reflexivity.
Qed.

Lemma canon_op3_4 u o : canon_op3 u o = true -> canon_op4 u o = true.
Proof.
  destruct o; try (intros H; exact H); try reflexivity; try discriminate.
  - destruct h; reflexivity.
Qed.

Lemma cbb_is_cbb u b : cannot_be_a_base u = Some b -> is_cbb u = b.
Proof.
  unfold cannot_be_a_base, u_slice_from, slice_from_o, is_cbb. destruct (scheme_end u + 1 <=? nlen (ser u)); [|discriminate].
  cbn [bindo]. intros H. injection H as H'. exact H'.
Qed.

Section ReachC4.
Variable dbg : bool.
Variable hp hpo : list N -> result host.
Variable hd : host -> list N.
Hypothesis HOK : HostOK2 hp hpo hd.
Hypothesis HNE : host_nonempty hp hpo.

Let HRT : HostRT hp hpo hd := proj1 HOK.
Let HAb : host_above hp hpo hd := proj1 (proj2 HOK).
Let HIP : ip_clause hp hpo hd := proj2 (proj2 HOK).

Lemma Canon_cbb_some u : Canon hp hpo hd u -> exists b, cannot_be_a_base u = Some b.
Proof using HRT.
  intros IH. destruct IH as [sch P q f K | sch segs last q f K | sch ui h pt p q f K | sch ui h pt p q f K Kp].
  - exists true. exact (opaque_url_cbb sch P q f K).
  - exists false. exact (proj1 (proj2 (noauth_url_wf sch segs last q f K))).
  - exists false. exact (proj2 (auth_url_wf hp hpo hd HRT _ _ _ _ _ _ _ _ K)).
  - exists false. exact (proj2 (auth_url_wf hp hpo hd HRT _ _ _ _ _ _ _ _ K)).
Qed.

Lemma canon_op4_step u o u' : Canon hp hpo hd u -> canon_op4 u o = true -> op_args_ok o ->
  known_step3 dbg hp hpo hd u o = false -> apply_op dbg hp hpo hd u o = Some u' -> nlen (ser u') <= U32_MAX_P ->
  Canon hp hpo hd u'.
Proof using HOK HNE HRT HAb HIP.
  intros IH Ht Ha Hk3 Ho Hb. pose proof (known_step3_2 dbg hp hpo hd u o Hk3) as Hk.
  assert (canon_op3 u o = true -> Canon hp hpo hd u') as G3
    by (intros H3; exact (canon_op3_step dbg hp hpo hd HOK HNE u o u' IH H3 Ha Hk Ho Hb)).
  destruct o; try (exact (G3 Ht)); cbn [apply_op op_args_ok canon_op4] in *.
  - (* set_path *)
    destruct (Canon_cbb_some u IH) as [[|] Hcb].
    + unfold known_step2, known_step in Hk. rewrite !orb_false_iff in Hk. destruct Hk as [[[[[_ K3] _] _] _] _].
      destruct IH as [sch P q f K | sch segs last q f K | sch ui h pt p0 q f K | sch ui h pt p0 q f K Kp].
      * exact (set_path_opaque_Canon dbg hp hpo hd sch P q f p u' K Ha K3 Ho Hb).
      * rewrite (proj1 (proj2 (noauth_url_wf sch segs last q f K))) in Hcb. discriminate Hcb.
      * rewrite (proj2 (auth_url_wf hp hpo hd HRT _ _ _ _ _ _ _ _ K)) in Hcb. discriminate Hcb.
      * rewrite (proj2 (auth_url_wf hp hpo hd HRT _ _ _ _ _ _ _ _ K)) in Hcb. discriminate Hcb.
    + exact (set_path_Canon_hier dbg hp hpo hd u p u' IH Hcb Ha Hk Ho Hb).
  - (* set_host *)
    destruct h as [x|]; [exact (G3 eq_refl)|].
    destruct (option_map_fst_some _ _ Ho) as [s Es].
    exact (set_host_none_Canon dbg hp hpo hd HRT u u' s IH Hk Es).
  - (* path_segments_mut on an opaque path: refused, the record is unchanged *)
    destruct (Canon_cbb_some u IH) as [b Eb]. rewrite (cbb_is_cbb u b Eb) in Ht. subst b.
    unfold path_segments_session, path_segments_mut in Ho. rewrite Eb in Ho. cbn [bindo option_map fst] in Ho.
    inversion Ho; subst u'. exact IH.
  - (* quirks host *)
    destruct (option_map_fst_some _ _ Ho) as [s0 Es].
    exact (q_set_host_Canon dbg hp hpo hd HRT HAb u s u' s0 (proj1 HNE) IH Hk3 Es Hb).
  - (* quirks hostname *)
    destruct (option_map_fst_some _ _ Ho) as [s0 Es].
    exact (q_set_hostname_Canon dbg hp hpo hd HRT HAb u s u' s0 IH Hk Es Hb).
  - (* quirks pathname *)
    exact (q_set_pathname_Canon_all dbg hp hpo hd u s u' IH Ha Hk Ho Hb).
Qed.

Inductive ReachC4 : url -> Prop :=
| RC4_parse ovr input u :
    usv_list input -> nonfile_input input = true -> (ovr = None \/ special_input input = false) ->
    parse_url dbg hp hpo hd ovr None input = POk u -> ReachC4 u
| RC4_join ovr b input u :
    ReachC4 b -> usv_list input -> tail_ref input = true ->
    (ovr = None \/ st_is_special (scheme_type_of (b_scheme b)) = false) ->
    parse_url dbg hp hpo hd ovr (Some b) input = POk u -> ReachC4 u
| RC4_step u o u' :
    ReachC4 u -> canon_op4 u o = true -> op_args_ok o -> known_step3 dbg hp hpo hd u o = false ->
    apply_op dbg hp hpo hd u o = Some u' -> nlen (ser u') <= U32_MAX_P -> ReachC4 u'
| RC4_qpm u ops u' :
    ReachC4 u -> Forall op_ok ops -> query_pairs_session dbg u ops = Some u' ->
    nlen (ser u') <= U32_MAX_P -> ReachC4 u'.

Lemma ReachC3_C4 u : ReachC3 dbg hp hpo hd u -> ReachC4 u.
Proof.
  induction 1 as [ovr input u Hu Hn Hov Hp | ovr b input u Hr IH Hu Ht Hov Hp | u o u' Hr IH Ht Ha Hk Ho Hb
                 | u ops u' Hr IH Hops Hs Hb].
  - exact (RC4_parse ovr input u Hu Hn Hov Hp).
  - exact (RC4_join ovr b input u IH Hu Ht Hov Hp).
  - apply (RC4_step u o u' IH (canon_op3_4 u o Ht) Ha); [|exact Ho | exact Hb].
    unfold known_step3. rewrite Hk. exact (canon_op3_not_10 u o Ht).
  - exact (RC4_qpm u ops u' IH Hops Hs Hb).
Qed.

Theorem ReachC4_Canon u : ReachC4 u -> Canon hp hpo hd u.
Proof using HOK HNE HRT HAb HIP.
  induction 1 as [ovr input u Hu Hn Hov Hp | ovr b input u Hr IH Hu Ht Hov Hp | u o u' Hr IH Ht Ha Hk Ho Hb
                 | u ops u' Hr IH Hops Hs Hb].
  - exact (parse_Canon dbg hp hpo hd HRT ovr input u HAb Hu Hn Hov Hp).
  - exact (join_tail_Canon dbg hp hpo hd HRT ovr b input u IH Hu Ht Hov Hp).
  - exact (canon_op4_step u o u' IH Ht Ha Hk Ho Hb).
  - exact (qpm_Canon dbg hp hpo hd HRT u ops u' IH Hops Hs Hb).
Qed.

Theorem reach_partial4 u : ReachC4 u ->
  Fixpoint_of_reparse dbg hp hpo hd u /\ wf_b u = true /\ ascii (ser u).
Proof using HOK HNE HRT HAb HIP. intros H. exact (Canon_fixpoint dbg hp hpo hd HRT u (ReachC4_Canon u H)). Qed.

Theorem reach4_absolute u b : ReachC4 u ->
  parse_url dbg hp hpo hd None (Some b) (utf8_lossy (ser u)) = POk u.
Proof using HOK HNE HRT HAb HIP.
  intros H. exact (Canon_absolute dbg hp hpo hd HOK u b (ReachC4_Canon u H)).
Qed.

End ReachC4.

(* the theorem for the parser model linked with the host model: the only premise about hosts is IdnaOK *)
Theorem reach_partial4_model dbg idna : IdnaOK idna -> forall u,
  ReachC4 dbg (host_parse idna) host_parse_opaque host_display u ->
  Fixpoint_of_reparse dbg (host_parse idna) host_parse_opaque host_display u /\ wf_b u = true /\ ascii (ser u).
Proof. intros OK u. exact (reach_partial4 dbg _ _ _ (HostOK2_model idna OK) (host_nonempty_model idna) u). Qed.

(* non-vacuity, on the host model (idna_clean), release and debug builds *)
(* a://u:pw@h.x:81/p?q -> quirks hostname("example.org") -> quirks host("[::1]:82") = a://u:pw@[::1]:82/p?q ->
   set_host(None) = a:/p?q -> set_path("x/../y z") = a:/y%20z?q -> set_path("") = a:?q (opaque, empty path) ;
   a:/p -> quirks host("") = a:///p ; a://h/p -> quirks pathname("") = a://h ; release build: a://h?q -> set_host(None) = a:?q *)
Definition m_hist_r (start : string) (ops : list op) : option url :=
  match parse_url false mhp host_parse_opaque host_display None None (B start) with
  | POk u => fold_left (fun acc o => match acc with Some v => apply_op false mhp host_parse_opaque host_display v o | None => None end) ops (Some u)
  | _ => None
  end.

Example reach4_example :
  match m_hist "a://u:pw@h.x:81/p?q" [OQHostname (B "example.org")] with
  | Some u => list_eqb (ser u) (B "a://u:pw@example.org:81/p?q") && m_fix u | None => false end = true
  /\ match m_hist "a://u:pw@h.x:81/p?q" [OQHostname (B "example.org"); OQHost (B "[::1]:82")] with
     | Some u => list_eqb (ser u) (B "a://u:pw@[::1]:82/p?q") && m_fix u | None => false end = true
  /\ match m_hist "a://u:pw@h.x:81/p?q" [OQHostname (B "example.org"); OQHost (B "[::1]:82"); OSetHost None] with
     | Some u => list_eqb (ser u) (B "a:/p?q") && m_fix u | None => false end = true
  /\ match m_hist "a://u:pw@h.x:81/p?q" [OQHostname (B "example.org"); OQHost (B "[::1]:82"); OSetHost None; OSetPath (B "x/../y z")] with
     | Some u => list_eqb (ser u) (B "a:/y%20z?q") && m_fix u | None => false end = true
  /\ match m_hist "a://u:pw@h.x:81/p?q" [OQHostname (B "example.org"); OQHost (B "[::1]:82"); OSetHost None; OSetPath (B "x/../y z"); OSetPath []] with
     | Some u => list_eqb (ser u) (B "a:?q") && m_fix u | None => false end = true
  /\ match m_hist "a:/p" [OQHost []] with Some u => list_eqb (ser u) (B "a:///p") && m_fix u | None => false end = true
  /\ match m_hist "a://h/p" [OQPathname []] with Some u => list_eqb (ser u) (B "a://h") && m_fix u | None => false end = true
  /\ match m_hist "a:b?q" [OSetPath (B "/x y/z")] with Some u => list_eqb (ser u) (B "a:%2Fx y/z?q") && m_fix u | None => false end = true
  /\ match m_hist "a://h?q" [OSetHost None] with Some _ => false | None => true end = true
  /\ match m_hist_r "a://h?q" [OSetHost None] with Some u => list_eqb (ser u) (B "a:?q") && m_fix u | None => false end = true.
Proof. vm_compute. repeat split. Qed.
