(* Proofs/C17_Bridge.v - pretend_parse_data_url is the front of the URL parser: when the URL parser
   model reads the scheme "data" from a string and leaves `rem`, pretend_parse_data_url on the UTF-8
   bytes of the same string returns the UTF-8 bytes of `rem` (same trimming, same tab / newline
   skipping, same case-insensitive scheme). *)
From RU Require Import Base.Prelude Base.Utf8 Base.Utf8Facts Gen.Tables
  Model.Parser Model.Mime Model.DataUrl Model.DataUrlTie
  Proofs.C02_Enc Proofs.C02_Parts Proofs.C17_Tables Proofs.C17_Total.

(* Model/DataUrl.v and Model/Parser.v each define drop_while and is_c0_or_space (one per crate); they are
   the same functions *)
Lemma drop_while_same f l : DataUrl.drop_while f l = Parser.drop_while f l.
Proof. induction l as [|c r IH]; [reflexivity|]. cbn [DataUrl.drop_while Parser.drop_while]. rewrite IH. reflexivity. Qed.

Lemma c0sp_same c : DataUrl.is_c0_or_space c = Parser.is_c0_or_space c.
Proof. reflexivity. Qed.

Lemma drop_while_ext f g l : (forall c, f c = g c) -> DataUrl.drop_while f l = DataUrl.drop_while g l.
Proof. intros H. induction l as [|c r IH]; [reflexivity|]. cbn [DataUrl.drop_while]. rewrite H, IH. reflexivity. Qed.

(* UTF-8 facts used throughout the C17 files *)
Lemma encode1_ascii c : c < 128 -> utf8_encode1 c = [c].
Proof. intros H. unfold utf8_encode1. replace (c <? 128) with true by lia. reflexivity. Qed.

Lemma utf8_cons c r : utf8_encode (c :: r) = utf8_encode1 c ++ utf8_encode r.
Proof. reflexivity. Qed.

Lemma encode1_all_above c k : is_usv c -> k <= c -> k <= 128 -> Forall (fun b => k <= b) (utf8_encode1 c).
Proof.
  intros Hu Hk Hk2. destruct (encode1_shape c Hu) as [[H1 H2]|[b [r [H2 [H3 H4]]]]]; rewrite H2.
  - constructor; [lia|constructor].
  - constructor; [lia|]. eapply Forall_impl; [|exact H4]. cbv beta. intros; lia.
Qed.

(* trimming the chars = trimming the bytes *)
Lemma du_trim_start_chars s : usv_list s ->
  DataUrl.drop_while DataUrl.is_c0_or_space (utf8_encode s) = utf8_encode (Parser.drop_while Parser.is_c0_or_space s).
Proof.
  induction s as [|c r IH]; intros H; [reflexivity|]. inversion H as [|? ? Hc Hr]; subst.
  cbn [Parser.drop_while]. rewrite utf8_cons. unfold Parser.is_c0_or_space at 1.
  destruct (c <=? 32) eqn:E.
  - rewrite encode1_ascii by lia. cbn [app DataUrl.drop_while]. unfold DataUrl.is_c0_or_space at 1.
    change T_DU_TRIM_MAX with 32. rewrite E. exact (IH Hr).
  - rewrite utf8_cons. pose proof (encode1_all_above c 33 Hc ltac:(lia) ltac:(lia)) as Ha.
    destruct (utf8_encode1 c) as [|b bs] eqn:Eb.
    + exfalso. destruct (encode1_shape c Hc) as [[_ H2]|[b [r' [H2 _]]]]; rewrite Eb in H2; discriminate.
    + cbn [app DataUrl.drop_while]. inversion Ha; subst. unfold DataUrl.is_c0_or_space at 1.
      change T_DU_TRIM_MAX with 32. replace (b <=? 32) with false by lia. reflexivity.
Qed.

Lemma drop_while_end_app_all f x y : forallb f y = true -> drop_while_end f (x ++ y) = drop_while_end f x.
Proof.
  intros H. unfold drop_while_end. rewrite rev_app_distr. f_equal.
  assert (Hr : forallb f (rev y) = true).
  { apply forallb_forall. intros a Ha. apply in_rev in Ha. rewrite forallb_forall in H. exact (H a Ha). }
  clear H. induction (rev y) as [|a l IH]; [reflexivity|]. cbn [app DataUrl.drop_while forallb] in *.
  apply andb_true_iff in Hr. destruct Hr as [H1 H2]. rewrite H1. exact (IH H2).
Qed.

Lemma drop_while_end_id f x : match rev x with [] => True | c :: _ => f c = false end -> drop_while_end f x = x.
Proof.
  intros H. unfold drop_while_end. destruct (rev x) as [|c r] eqn:E.
  - cbn. rewrite <- (rev_involutive x), E. reflexivity.
  - cbn [DataUrl.drop_while]. rewrite H, <- E. apply rev_involutive.
Qed.

Lemma rev_utf8_last r z : is_usv z -> 32 < z ->
  match rev (utf8_encode (r ++ [z])) with [] => True | b :: _ => DataUrl.is_c0_or_space b = false end.
Proof.
  intros Hz Hgt. rewrite utf8_encode_app, rev_app_distr. unfold utf8_encode at 1. cbn [flat_map]. rewrite app_nil_r.
  pose proof (encode1_all_above z 33 Hz ltac:(lia) ltac:(lia)) as Ha.
  destruct (rev (utf8_encode1 z)) as [|b bs] eqn:Eb.
  - exfalso. apply (f_equal (@rev N)) in Eb. rewrite rev_involutive in Eb. cbn [rev] in Eb.
    destruct (encode1_shape z Hz) as [[_ H2]|[b [r' [H2 _]]]]; rewrite Eb in H2; discriminate.
  - cbn [app]. assert (Hin : In b (utf8_encode1 z)) by (apply in_rev; rewrite Eb; left; reflexivity).
    rewrite Forall_forall in Ha. specialize (Ha b Hin). unfold DataUrl.is_c0_or_space. change T_DU_TRIM_MAX with 32. lia.
Qed.

(* the scheme scan of pretend_parse_data_url (scan_letters) against parse_scheme_loop *)
Lemma scan_letters_skip letters c r : tnl c = true -> scan_letters letters (c :: r) = scan_letters letters r.
Proof.
  intros Ht. unfold scan_letters. destruct letters as [|x ls]; cbn [require_scheme filter_next];
    rewrite is_skipped_spec, Ht; reflexivity.
Qed.

Lemma scan_letters_match x ls c r : tnl c = false -> byte_eq_ignore_ascii_case c x = true ->
  scan_letters (x :: ls) (c :: r) = scan_letters ls r.
Proof.
  intros Ht He. unfold scan_letters. cbn [require_scheme filter_next]. rewrite is_skipped_spec, Ht, He. reflexivity.
Qed.

Lemma is_tnl_tnl c : Parser.is_tnl c = tnl c.
Proof. reflexivity. Qed.

Lemma scan_of_parse_scheme : forall l acc letters rem Z,
  parse_scheme_loop CUrlParser acc l = Some (rev acc ++ letters, rem) ->
  scan_letters letters (utf8_encode l ++ Z) = Some (utf8_encode rem ++ Z).
Proof.
  induction l as [|c r IH]; intros acc letters rem Z H; cbn [parse_scheme_loop] in H.
  - cbn [ctx_eqb] in H. discriminate.
  - destruct (is_tnl c) eqn:Et.
    { rewrite utf8_cons, encode1_ascii by (unfold is_tnl in Et; lia). cbn [app].
      rewrite scan_letters_skip by (rewrite <- is_tnl_tnl; exact Et). exact (IH _ _ _ _ H). }
    destruct (is_lower c || is_digit c || (c =? 43) || (c =? 45) || (c =? 46)) eqn:E1.
    { destruct (parse_scheme_loop_out _ _ _ _ H) as (s' & Hs & _). cbn [rev] in Hs.
      rewrite <- app_assoc in Hs. apply app_inv_head in Hs. cbn [app] in Hs. subst letters.
      rewrite utf8_cons, encode1_ascii by (unfold is_lower, is_digit in E1; lia). cbn [app].
      rewrite scan_letters_match; [|rewrite <- is_tnl_tnl; exact Et|unfold byte_eq_ignore_ascii_case; apply N.eqb_refl].
      apply (IH (c :: acc)). cbn [rev]. rewrite <- app_assoc. exact H. }
    destruct (is_upper c) eqn:E2.
    { destruct (parse_scheme_loop_out _ _ _ _ H) as (s' & Hs & _). cbn [rev] in Hs.
      rewrite <- app_assoc in Hs. apply app_inv_head in Hs. cbn [app] in Hs. subst letters.
      rewrite utf8_cons, encode1_ascii by (unfold is_upper in E2; lia). cbn [app].
      rewrite scan_letters_match; [|rewrite <- is_tnl_tnl; exact Et|].
      - apply (IH ((c + 32) :: acc)). cbn [rev]. rewrite <- app_assoc. exact H.
      - unfold byte_eq_ignore_ascii_case, to_lower. rewrite E2.
        replace (is_upper (c + 32)) with false by (unfold is_upper in *; lia). apply N.eqb_refl. }
    destruct (c =? 58) eqn:E3; [|discriminate]. apply N.eqb_eq in E3. subst c.
    injection H as Hl Hr. subst rem.
    assert (letters = []) as ->.
    { apply (f_equal (@length N)) in Hl. rewrite app_length in Hl. destruct letters; [reflexivity|cbn [length] in Hl; lia]. }
    rewrite utf8_cons, encode1_ascii by lia. cbn [app]. unfold scan_letters. cbn [require_scheme filter_next].
    rewrite is_skipped_spec. change (tnl 58) with false. cbv iota. change (58 =? T_DU_COLON) with true. reflexivity.
Qed.

(* what parse_scheme leaves of a string of scalar values consists of scalar values *)
Lemma trimmed_usv s : usv_list s -> usv_list (input_new_trim_c0 s).
Proof.
  intros Hs. unfold input_new_trim_c0, Parser.trim_matches. apply usv_rev.
  destruct (drop_while_spec Parser.is_c0_or_space (rev (Parser.drop_while Parser.is_c0_or_space s))) as (a & Ha & _).
  destruct (drop_while_spec Parser.is_c0_or_space s) as (a0 & Ha0 & _).
  rewrite Ha0 in Hs. apply usv_app in Hs. destruct Hs as [_ Hs].
  apply usv_rev in Hs. rewrite Ha in Hs. apply usv_app in Hs. tauto.
Qed.

Lemma parse_scheme_rem_usv s sch rem : usv_list s ->
  parse_scheme CUrlParser (input_new_trim_c0 s) = Some (sch, rem) -> usv_list rem.
Proof.
  intros Hs Hp. destruct (parse_scheme_suffix _ _ _ _ Hp) as [pre Hpre].
  pose proof (trimmed_usv s Hs) as Ht. rewrite Hpre in Ht. apply usv_app in Ht. tauto.
Qed.

Theorem pretend_parse_is_parse_scheme s rem : usv_list s ->
  parse_scheme CUrlParser (input_new_trim_c0 s) = Some (s_data, rem) ->
  pretend_parse_data_url (utf8_encode s) = Ok (Some (utf8_encode rem)).
Proof.
  intros Hs Hp. pose proof (parse_scheme_rem_usv s _ rem Hs Hp) as Hur.
  rewrite pretend_parse_eval by (apply utf8_encode_after_ascii; exact Hs).
  rewrite du_trim_start_chars by exact Hs.
  (* the trimmed text and the trailing C0 / space run *)
  unfold input_new_trim_c0, Parser.trim_matches in Hp.
  set (m := Parser.drop_while Parser.is_c0_or_space s) in *.
  destruct (drop_while_spec Parser.is_c0_or_space (rev m)) as (a & Ha & Hall & Hd).
  set (d := Parser.drop_while Parser.is_c0_or_space (rev m)) in *.
  assert (Em : m = rev d ++ rev a) by (rewrite <- rev_app_distr, <- Ha; symmetry; apply rev_involutive).
  (* rem is a suffix of the trimmed text *)
  destruct (parse_scheme_suffix _ _ _ _ Hp) as [pre Hpre].
  unfold parse_scheme in Hp. destruct (inp_starts_with_pred is_alpha (rev d)) eqn:Ealpha; [|discriminate Hp].
  pose proof (scan_of_parse_scheme (rev d) [] s_data rem (utf8_encode (rev a)) Hp) as Hscan.
  rewrite Em, utf8_encode_app. change T_DU_SCHEME with s_data. rewrite Hscan. cbn [option_map]. do 2 f_equal.
  (* the trailing run is dropped, nothing of rem is *)
  assert (Hua : usv_list (rev a) /\ forallb DataUrl.is_c0_or_space (rev a) = true).
  { split.
    - apply Forall_forall. intros x Hx. apply in_rev in Hx. rewrite forallb_forall in Hall.
      specialize (Hall x Hx). unfold Parser.is_c0_or_space, is_usv in *. lia.
    - apply forallb_forall. intros x Hx. apply in_rev in Hx. rewrite forallb_forall in Hall. exact (Hall x Hx). }
  destruct Hua as [Hua Hca].
  assert (Haa : utf8_encode (rev a) = rev a).
  { apply utf8_encode_ascii. apply Forall_forall. intros x Hx. rewrite forallb_forall in Hca.
    specialize (Hca x Hx). unfold DataUrl.is_c0_or_space, is_ascii in *. change T_DU_TRIM_MAX with 32 in Hca. lia. }
  rewrite Haa, drop_while_end_app_all by exact Hca.
  apply drop_while_end_id.
  (* last code point of rem *)
  assert (Hlast : first_ok (rev rem)).
  { apply (first_ok_rev_suffix pre). rewrite <- Hpre, rev_involutive. exact Hd. }
  destruct (rev rem) as [|z y] eqn:Er.
  - assert (rem = []) by (rewrite <- (rev_involutive rem), Er; reflexivity). subst rem. exact I.
  - assert (Erem : rem = rev y ++ [z]) by (rewrite <- (rev_involutive rem), Er; reflexivity).
    rewrite Erem. apply rev_utf8_last.
    + rewrite Erem in Hur. apply Forall_app in Hur. destruct Hur as [_ Hz]. inversion Hz; assumption.
    + cbn [first_ok] in Hlast. unfold Parser.is_c0_or_space in Hlast. lia.
Qed.
