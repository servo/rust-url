(* Proofs/Idna_C10c_Puny.v - Punycode facts for the idempotence proof of ToASCII:
     decode_u8_lower   : the u8 decoder does not see the case of ASCII letters of its input;
     decode_nonascii   : the decoded text of a non-empty input that does not end in '-' contains a
                         non-ASCII scalar value (every consumed delta inserts a code point >= 128);
     decode_trailing_delim / encode_no_trailing_delim : an input that ends in '-' decodes to its (lower-cased) basic
                         part, hence the internal encoder never ends the Punycode form of a non-ASCII label in '-';
     encode_nodot      : the Punycode form of a label without a dot has no dot. *)
From RU Require Import Base.Prelude Base.Utf8 Base.U32_c13 Gen.Tables Model.Punycode Model.Uts46
  Proofs.C13_Ascii Proofs.C13_Dec Proofs.Idna_C10_Deny Proofs.Idna_C10_Puny Proofs.Idna_Hyp Proofs.Idna_PunyRT.

Lemma to_lower_delim x : (to_lower x =? DELIMITER) = (x =? DELIMITER).
Proof. unfold to_lower, is_upper, DELIMITER. destruct ((65 <=? x) && (x <=? 90)) eqn:E; lia. Qed.
Lemma to_lower_idem x : to_lower (to_lower x) = to_lower x.
Proof. unfold to_lower, is_upper. destruct ((65 <=? x) && (x <=? 90)) eqn:E; [|rewrite E; reflexivity].
  replace ((65 <=? x + 32) && (x + 32 <=? 90)) with false by lia. reflexivity. Qed.
Lemma digit_u8_of_lower b : digit_u8 (to_lower b) = digit_u8 b.
Proof.
  rewrite !digit_u8_table. unfold digit_u8_spec, to_lower, is_upper.
  destruct ((65 <=? b) && (b <=? 90)) eqn:E; [|rewrite ?E; reflexivity].
  replace ((48 <=? b + 32) && (b + 32 <=? 57)) with false by lia.
  replace ((65 <=? b + 32) && (b + 32 <=? 90)) with false by lia.
  replace ((97 <=? b + 32) && (b + 32 <=? 122)) with true by lia.
  replace ((48 <=? b) && (b <=? 57)) with false by lia. f_equal. lia.
Qed.

Lemma rposition_lower l : rposition_delim (map to_lower l) = rposition_delim l.
Proof.
  induction l as [|x r IH]; [reflexivity|]. cbn [map rposition_delim]. rewrite IH, to_lower_delim. reflexivity.
Qed.

Lemma split_input_lower l :
  split_input (map to_lower l) = (map to_lower (fst (split_input l)), map to_lower (snd (split_input l))).
Proof.
  unfold split_input. rewrite rposition_lower. destruct (rposition_delim l) as [p|]; [|reflexivity].
  cbn [fst snd]. rewrite firstn_map. destruct (0 <? p)%nat; [rewrite skipn_map|]; reflexivity.
Qed.

Lemma dec_loop_lower cfg input : forall mid prev w k i length cp bias ins,
  dec_loop cfg U8Internal (map to_lower input) mid prev w k i length cp bias ins =
  dec_loop cfg U8Internal input mid prev w k i length cp bias ins.
Proof.
  induction input as [|byte rest IH]; intros mid prev w k i length cp bias ins; [reflexivity|].
  cbn [map dec_loop inst_digit]. rewrite digit_u8_of_lower.
  destruct (digit_u8 byte) as [digit|]; [|reflexivity].
  destruct (checked_mul digit w) as [product|]; [|reflexivity].
  destruct (checked_add i product) as [i1|]; [|reflexivity].
  destruct (digit <? threshold k bias).
  - destruct (unchecked_add cfg 233 length 1) as [len1| |s]; try reflexivity.
    destruct (adapt (i1 - prev) len1 (prev =? 0)) as [bias1| |s]; try reflexivity.
    destruct (checked_add cp (i1 / len1)) as [cp1|]; [|reflexivity].
    destruct (is_usvb cp1); [|reflexivity]. apply IH.
  - destruct (checked_mul w (BASE - threshold k bias)) as [w1|]; [|reflexivity]. apply IH.
Qed.

Lemma collect_lower ins : forall base pos,
  decode_collect U8Internal ins (map to_lower base) pos = decode_collect U8Internal ins base pos.
Proof.
  induction ins as [|[p c] ins' IHi]; intros base; induction base as [|b0 base' IHb]; intros pos; cbn [map];
    try reflexivity;
    rewrite (collect_eq U8Internal _ (to_lower b0 :: map to_lower base') pos), (collect_eq U8Internal _ (b0 :: base') pos).
  - cbn [inst_base_char]. rewrite to_lower_idem, IHb. reflexivity.
  - destruct (p =? pos).
    + rewrite <- (IHi (b0 :: base') (pos + 1)). reflexivity.
    + cbn [inst_base_char]. rewrite to_lower_idem, IHb. reflexivity.
Qed.

Theorem decode_u8_lower cfg p : decode_with cfg U8Internal (map to_lower p) = decode_with cfg U8Internal p.
Proof.
  unfold decode_with, decoder_decode. rewrite split_input_lower.
  destruct (split_input p) as [base rest]. cbn [fst snd inst_external andb].
  rewrite map_length, dec_loop_lower.
  destruct (dec_loop cfg U8Internal rest false 0 1 BASE 0 (u32_wrap (N.of_nat (length base))) INITIAL_N INITIAL_BIAS [])
    as [ins| |s]; try reflexivity.
  apply collect_lower.
Qed.

Definition big (e : N * N) : Prop := 128 <= snd e.

Lemma dec_loop_big cfg it input : forall mid prev w k i length cp bias ins out,
  dec_loop cfg it input mid prev w k i length cp bias ins = Ok out -> 128 <= cp -> Forall big ins ->
  Forall big out /\ (input <> [] \/ ins <> [] -> out <> []).
Proof.
  induction input as [|byte rest IH]; intros mid prev w k i length cp bias ins out H Hcp Hins.
  - cbn [dec_loop] in H. destruct mid; [discriminate|]. inversion H. subst out. split; [exact Hins|].
    intros [Hx|Hx]; [contradiction Hx; reflexivity|exact Hx].
  - cbn [dec_loop] in H.
    destruct (inst_digit it byte) as [digit|]; [|discriminate].
    destruct (checked_mul digit w) as [product|]; [|discriminate].
    destruct (checked_add i product) as [i1|]; [|discriminate].
    destruct (digit <? threshold k bias).
    + destruct (unchecked_add cfg 233 length 1) as [len1| |s]; try discriminate.
      destruct (adapt (i1 - prev) len1 (prev =? 0)) as [bias1| |s]; try discriminate.
      destruct (checked_add cp (i1 / len1)) as [cp1|] eqn:Ec; [|discriminate].
      destruct (is_usvb cp1); [|discriminate].
      assert (Hcp1 : 128 <= cp1).
      { unfold checked_add in Ec. remember (i1 / len1) as q. destruct (cp + q <=? U32_MAX); [|discriminate]. inversion Ec. lia. }
      assert (Hins1 : Forall big (shift_ins (i1 mod len1) ins ++ [(i1 mod len1, cp1)])).
      { apply Forall_app. split; [|constructor; [exact Hcp1|constructor]].
        unfold shift_ins. apply Forall_forall. intros e He. apply in_map_iff in He. destruct He as (e0 & <- & He0).
        rewrite Forall_forall in Hins. specialize (Hins e0 He0). unfold big in *.
        destruct (i1 mod len1 <=? fst e0); exact Hins. }
      destruct (IH _ _ _ _ _ _ _ _ _ _ H Hcp1 Hins1) as [H1 H2]. split; [exact H1|]. intros _. apply H2. right.
      destruct (shift_ins (i1 mod len1) ins); discriminate.
    + destruct (checked_mul w (BASE - threshold k bias)) as [w1|]; [|discriminate].
      destruct (IH _ _ _ _ _ _ _ _ _ _ H Hcp Hins) as [H1 H2]. split; [exact H1|].
      intros _. destruct rest as [|b2 rest2].
      * cbn [dec_loop] in H. discriminate.
      * apply H2. left. discriminate.
Qed.

Lemma insert_big x l : big x -> Forall big l -> Forall big (insert_by_key x l) /\ insert_by_key x l <> [].
Proof.
  intros Hx. induction 1 as [|y r Hy Hr IH]; cbn [insert_by_key].
  - split; [constructor; [exact Hx|constructor]|discriminate].
  - destruct (fst x <=? fst y).
    + split; [constructor; [exact Hx|constructor; assumption]|discriminate].
    + split; [constructor; [exact Hy|exact (proj1 IH)]|discriminate].
Qed.
Lemma sort_big l : Forall big l -> Forall big (sort_by_key l) /\ (l <> [] -> sort_by_key l <> []).
Proof.
  induction 1 as [|x r Hx Hr IH]; cbn [sort_by_key fold_right].
  - split; [constructor|intros H; contradiction H; reflexivity].
  - destruct (insert_big x (sort_by_key r) Hx (proj1 IH)) as [H1 H2]. split; [exact H1|intros _; exact H2].
Qed.

Lemma collect_big it ins : forall base pos out, decode_collect it ins base pos = Ok out ->
  Forall big ins -> ins <> [] -> exists c, In c out /\ 128 <= c.
Proof.
  destruct ins as [|[p c] ins']; intros base; [intros ? ? _ _ Hne; contradiction Hne; reflexivity|].
  induction base as [|b0 base' IHb]; intros pos out H Hb _; rewrite collect_eq in H.
  - destruct (p =? pos); [|discriminate]. apply rcons_ok in H. destruct H as (o & _ & ->).
    exists c. split; [left; reflexivity|]. inversion Hb as [|? ? Hc _]. exact Hc.
  - destruct (p =? pos).
    + apply rcons_ok in H. destruct H as (o & _ & ->).
      exists c. split; [left; reflexivity|]. inversion Hb as [|? ? Hc _]. exact Hc.
    + apply rcons_ok in H. destruct H as (o & Ho & ->).
      destruct (IHb _ _ Ho Hb ltac:(discriminate)) as (c0 & Hin & Hc0). exists c0. split; [right; exact Hin|exact Hc0].
Qed.

Lemma rposition_lt l : forall p, rposition_delim l = Some p -> (p < length l)%nat /\ nth p l 0 = DELIMITER.
Proof.
  induction l as [|x r IH]; intros p H; [discriminate|]. cbn [rposition_delim] in H.
  destruct (rposition_delim r) as [i|].
  - inversion H. subst p. destruct (IH i eq_refl) as [H1 H2]. cbn [length nth]. split; [lia|exact H2].
  - destruct (x =? DELIMITER) eqn:E; [|discriminate]. inversion H. subst p. cbn [length nth]. split; [lia|lia].
Qed.

Lemma last_opt_nth (l : list N) : l <> [] -> last_opt l = Some (nth (length l - 1) l 0).
Proof.
  induction l as [|x r IH]; intros H; [contradiction H; reflexivity|].
  destruct r as [|y r']; [reflexivity|]. change (last_opt (x :: y :: r')) with (last_opt (y :: r')).
  rewrite IH by discriminate. cbn [length]. replace (Datatypes.S (Datatypes.S (length r')) - 1)%nat with (Datatypes.S (length r')) by lia.
  cbn [nth]. replace (Datatypes.S (length r') - 1)%nat with (length r') by lia. reflexivity.
Qed.

Lemma split_input_rest p : p <> [] -> last_opt p <> Some DELIMITER -> snd (split_input p) <> [].
Proof.
  intros Hne Hl. unfold split_input. destruct (rposition_delim p) as [i|] eqn:E; [|exact Hne].
  cbn [snd]. destruct (0 <? i)%nat; [|exact Hne].
  destruct (rposition_lt p i E) as [Hi Hn].
  intros Hs. apply (f_equal (@length N)) in Hs. rewrite skipn_length in Hs. cbn [length] in Hs.
  assert (Hi2 : i = (length p - 1)%nat) by lia.
  apply Hl. rewrite (last_opt_nth p Hne), <- Hi2, Hn. reflexivity.
Qed.

Theorem decode_nonascii cfg it p l : decode_with cfg it p = Ok l -> p <> [] -> last_opt p <> Some DELIMITER ->
  exists c, In c l /\ 128 <= c.
Proof.
  intros H Hne Hl. unfold decode_with, decoder_decode in H.
  pose proof (split_input_rest p Hne Hl) as Hr.
  destruct (split_input p) as [base rest]. cbn [snd] in Hr.
  destruct (inst_external it && negb (forallb (fun c => c <? 128) base)); [discriminate|].
  destruct (dec_loop cfg it rest false 0 1 BASE 0 (u32_wrap (N.of_nat (length base))) INITIAL_N INITIAL_BIAS [])
    as [ins| |s] eqn:Ed; try discriminate.
  destruct (dec_loop_big _ _ _ _ _ _ _ _ _ _ _ _ _ Ed ltac:(vm_compute; discriminate) ltac:(constructor)) as [Hb Hn].
  destruct (sort_big ins Hb) as [Hsb Hsn].
  exact (collect_big it _ _ _ _ H Hsb (Hsn (Hn (or_introl Hr)))).
Qed.

Lemma rposition_snoc q : rposition_delim (q ++ [DELIMITER]) = Some (length q).
Proof.
  induction q as [|x r IH]; [reflexivity|]. cbn [app rposition_delim length]. rewrite IH. reflexivity.
Qed.

Lemma collect_noins it : forall base pos, decode_collect it [] base pos = Ok (map (inst_base_char it) base).
Proof.
  induction base as [|b r IH]; intros pos; rewrite collect_eq; [reflexivity|]. rewrite IH. reflexivity.
Qed.

Lemma decode_trailing_delim cfg q l : decode_with cfg U8Internal (q ++ [DELIMITER]) = Ok l -> l = map to_lower q.
Proof.
  unfold decode_with, decoder_decode, split_input. rewrite rposition_snoc.
  destruct q as [|x r].
  - cbn [length app]. change (0 <? 0)%nat with false. cbv iota. cbn [firstn inst_external andb].
    cbn [dec_loop inst_digit]. replace (digit_u8 DELIMITER) with (@None N) by (rewrite digit_u8_table; reflexivity).
    discriminate.
  - change (0 <? length (x :: r))%nat with true. cbv iota.
    rewrite firstn_app, Nat.sub_diag, firstn_all. cbn [firstn]. rewrite app_nil_r.
    replace (skipn (Datatypes.S (length (x :: r))) ((x :: r) ++ [DELIMITER])) with (@nil N).
    2:{ symmetry. apply skipn_all2. rewrite app_length. cbn [length]. lia. }
    cbn [inst_external andb dec_loop sort_by_key fold_right]. rewrite collect_noins. intros H. inversion H. reflexivity.
Qed.

(* what the internal encoder writes for a non-ASCII label of at most 1000 scalar values without upper-case ASCII
   letters: not empty, not ending in '-' (no dot when the label has none: encode_nodot below).  Uts46.len is written
   qualified because C13_Enc.len, the same definition, hides it once Proofs/C13_* is imported *)
Theorem encode_no_trailing_delim cfg l p : Uts46.len l <= PUNYCODE_ENCODE_MAX_INPUT_LENGTH -> usv_list l ->
  existsb is_upper l = false -> is_ascii_l l = false -> encode_internal cfg l = Ok p ->
  p <> [] /\ last_opt p <> Some DELIMITER.
Proof.
  intros Hlen Hu Hup Hna He. destruct (punyrt_noupper cfg l p Hlen Hu Hup He) as [_ Hd].
  assert (Hp : Forall (fun c => c < 128) p).
  { unfold encode_internal in He. apply encode_into_chars in He. eapply Forall_impl; [|exact He].
    cbv beta. intros c [[_ Hc]|Hc]; [exact Hc|exact (ldh_lt c Hc)]. }
  split.
  - intros ->. vm_compute in Hd. inversion Hd. subst l. discriminate.
  - intros Hl.
    assert (Hq : exists q, p = q ++ [DELIMITER]).
    { clear -Hl. induction p as [|x r IH]; [discriminate|]. destruct r as [|y r'].
      - inversion Hl. exists []. reflexivity.
      - change (last_opt (x :: y :: r')) with (last_opt (y :: r')) in Hl. destruct (IH Hl) as (q & Hq).
        exists (x :: q). rewrite Hq. reflexivity. }
    destruct Hq as (q & ->). apply decode_trailing_delim in Hd. subst l.
    apply Forall_app in Hp. destruct Hp as [Hp _].
    assert (Hx : is_ascii_l (map to_lower q) = true).
    { unfold is_ascii_l. apply forallb_forall. intros c Hc. apply in_map_iff in Hc. destruct Hc as (c0 & <- & Hc0).
      rewrite Forall_forall in Hp. specialize (Hp c0 Hc0). unfold is_ascii_cp, to_lower, is_upper.
      destruct ((65 <=? c0) && (c0 <=? 90)) eqn:E; lia. }
    rewrite Hx in Hna. discriminate.
Qed.

(* the Punycode form has no dot when the label has none (through the round trip) *)
Lemma digit_u8_dot : digit_u8 DOT = None.
Proof. rewrite digit_u8_table. reflexivity. Qed.
Theorem encode_nodot cfg l p : Uts46.len l <= PUNYCODE_ENCODE_MAX_INPUT_LENGTH -> usv_list l ->
  existsb is_upper l = false -> ~ In DOT l -> encode_internal cfg l = Ok p -> ~ In DOT p.
Proof.
  intros Hlen Hu Hup Hnd He Hin. destruct (punyrt_noupper cfg l p Hlen Hu Hup He) as [_ Hd].
  pose proof (decode_with_chars cfg U8Internal p l eq_refl Hd) as Hc. rewrite Forall_forall in Hc.
  destruct (Hc DOT Hin) as [H|[H|H]].
  - cbn [inst_base_char] in H. apply Hnd. exact H.
  - discriminate.
  - cbn [inst_digit] in H. apply H. exact digit_u8_dot.
Qed.
