(* Proofs/C06_FragQuery.v - set_fragment and set_query on a well-formed record: no panic, the
   invariant is kept, every other component reads back unchanged, the component reads back as the
   parser's encoding of the argument. *)
From RU Require Import Base.Prelude Base.Utf8 Base.Utf8Facts Model.AsciiSet Gen.Tables Model.PercentEncoding
  Model.HostT Model.UrlRecord Model.Parser Model.Setters Model.WF
  Proofs.C14_Set Proofs.C14_Enc Proofs.C14_Views
  Proofs.ListN Proofs.C03_WF Proofs.C06_List Proofs.C06_WFI Proofs.C06_Tail Proofs.C06_Steps.

Ltac fin := try assumption; try reflexivity; try apply same_front_refl; try apply same_main_refl.

(* the tab/newline-splitting encoder shared by parse_fragment and parse_query *)
Fixpoint tnl_loop (set : aset) (ser part_rev l : list N) : list N :=
  match l with
  | [] => match part_rev with [] => ser | _ => flush_part set utf8_encode ser part_rev end
  | c :: r => if is_tnl c then tnl_loop set (flush_part set utf8_encode ser part_rev) [] r
              else tnl_loop set ser (c :: part_rev) r
  end.
(* the text a setter stores for an argument: what the parser state writes for it *)
Definition tnl_text (set : aset) (l : list N) : list N := tnl_loop set [] [] l.

Lemma parse_fragment_loop_tnl l : forall ser part, parse_fragment_loop ser part l = tnl_loop T_FRAGMENT ser part l.
Proof. induction l as [|c r IH]; intros ser part; cbn [parse_fragment_loop tnl_loop]; [reflexivity|]. rewrite !IH. reflexivity. Qed.

Lemma parse_query_loop_tnl set l : forall ser part,
  parse_query_loop set utf8_encode false ser part l = (tnl_loop set ser part l, None).
Proof.
  induction l as [|c r IH]; intros ser part; cbn [parse_query_loop tnl_loop]; [reflexivity|].
  rewrite andb_false_r. rewrite !IH. destruct (is_tnl c); reflexivity.
Qed.

Lemma flush_part_app set ser part : flush_part set utf8_encode ser part = ser ++ flush_part set utf8_encode [] part.
Proof. reflexivity. Qed.

Lemma tnl_loop_app set l : forall ser part, tnl_loop set ser part l = ser ++ tnl_loop set [] part l.
Proof.
  induction l as [|c r IH]; intros ser part; cbn [tnl_loop].
  - destruct part; [rewrite app_nil_r; reflexivity | apply flush_part_app].
  - destruct (is_tnl c).
    + rewrite IH. rewrite (IH (flush_part set utf8_encode [] part)). rewrite flush_part_app. apply app_assoc_reverse.
    + apply IH.
Qed.

Lemma parse_fragment_text ser l : parse_fragment ser l = ser ++ tnl_text T_FRAGMENT l.
Proof. unfold parse_fragment, tnl_text. rewrite parse_fragment_loop_tnl. apply tnl_loop_app. Qed.

Lemma parse_query_text st se ser l :
  parse_query None CSetter st se ser l = (ser ++ tnl_text (query_set st) l, None).
Proof.
  unfold parse_query, tnl_text, query_enc. cbn [ctx_eqb]. rewrite parse_query_loop_tnl. rewrite tnl_loop_app. reflexivity.
Qed.

(* closed form: the encoding of the argument with tab / LF / CR removed *)
Definition not_tnl (c : N) : bool := negb (is_tnl c).

Lemma usv_list_app a b : usv_list (a ++ b) <-> usv_list a /\ usv_list b.
Proof. unfold usv_list. apply Forall_app. Qed.

Lemma pe_display_nil set : pe_display set [] = [].
Proof. reflexivity. Qed.

Lemma tnl_loop_spec set l : forall part, usv_list (rev part ++ l) ->
  tnl_loop set [] part l = encode set (utf8_encode (rev part ++ filter not_tnl l)).
Proof.
  induction l as [|c r IH]; intros part H; cbn [tnl_loop filter].
  - rewrite app_nil_r in *. destruct part as [|x p].
    + reflexivity.
    + unfold flush_part. cbn [app]. apply pe_display_is_encode. apply utf8_encode_bytes. exact H.
  - apply usv_list_app in H. destruct H as [H1 H2]. inversion H2 as [|? ? Hc Hr]; subst.
    unfold not_tnl at 1. destruct (is_tnl c); cbn [negb].
    + rewrite tnl_loop_app. rewrite (IH []) by exact Hr. cbn [rev app].
      unfold flush_part. cbn [app]. rewrite pe_display_is_encode by (apply utf8_encode_bytes; exact H1).
      rewrite utf8_encode_app, encode_app. reflexivity.
    + rewrite (IH (c :: part)).
      * cbn [rev]. rewrite <- app_assoc. reflexivity.
      * cbn [rev]. rewrite <- app_assoc. apply usv_list_app. split; [exact H1|]. constructor; assumption.
Qed.

Theorem tnl_text_spec set l : usv_list l -> tnl_text set l = encode set (utf8_encode (filter not_tnl l)).
Proof. intros H. unfold tnl_text. rewrite (tnl_loop_spec set l []) by exact H. reflexivity. Qed.

(* a byte the set encodes (other than '%' and the hex digits) never occurs in an encoding *)
Lemma hex_upper_not35_sweep : all_below 16 (fun d => negb (hex_upper d =? 35)) = true.
Proof. vm_compute. reflexivity. Qed.

Lemma encode_no_hash set bs : bytes bs -> should_encode set 35 = true -> forallb no_h (encode set bs) = true.
Proof.
  intros Hb Hs. induction bs as [|b r IH]; [reflexivity|].
  inversion Hb as [|? ? Hb1 Hr]; subst. rewrite encode_cons. apply forallb_app_iff. split; [|apply IH; exact Hr].
  unfold enc1. destruct (should_encode set b) eqn:E.
  - unfold enc_byte_spec. cbn [forallb]. unfold is_byte in Hb1.
    assert (forall d, d < 16 -> no_h (hex_upper d) = true) as Hh.
    { intros d Hd. unfold no_h. apply (all_below_spec 16 _ hex_upper_not35_sweep d Hd). }
    rewrite !Hh by lia. reflexivity.
  - cbn [forallb]. unfold no_h. destruct (b =? 35) eqn:E35; [|reflexivity].
    apply N.eqb_eq in E35. subst b. congruence.
Qed.

Lemma query_sets_encode_hash st : should_encode (query_set st) 35 = true.
Proof. unfold query_set. destruct (st_is_special st); vm_compute; reflexivity. Qed.

Lemma query_text_no_hash st l : usv_list l -> forallb no_h (tnl_text (query_set st) l) = true.
Proof.
  intros H. rewrite tnl_text_spec by exact H. apply encode_no_hash; [|apply query_sets_encode_hash].
  apply utf8_encode_bytes. unfold usv_list in *. rewrite Forall_forall in *. intros x Hx. apply H.
  apply filter_In in Hx. tauto.
Qed.

(* trimming keeps a USV list a USV list *)
Lemma drop_while_usv f l : usv_list l -> usv_list (drop_while f l).
Proof.
  unfold usv_list. induction l as [|c r IH]; intros H; [constructor|]. cbn [drop_while].
  destruct (f c); [|exact H]. apply IH. inversion H; assumption.
Qed.
Lemma trim_matches_usv f l : usv_list l -> usv_list (trim_matches f l).
Proof.
  intros H. unfold trim_matches, usv_list. apply Forall_rev. apply drop_while_usv. apply Forall_rev.
  apply drop_while_usv. exact H.
Qed.

Lemma dbg_byte_is_ok dbg u i b : byte_eqb (ser u) i b = true -> dbg_byte_is dbg u i b = Some tt.
Proof. intros H. unfold dbg_byte_is. rewrite (byte_is_of_eqb _ _ _ H). destruct dbg; reflexivity. Qed.

Lemma u_scheme_type_eval u : wf_b u = true -> u_scheme_type u = Some (scheme_type_of (nfirstn (scheme_end u) (ser u))).
Proof.
  intros W. unfold u_scheme_type. rewrite (scheme_eval u W). cbn [bindo]. unfold piece. cbn [pidx].
  rewrite N.sub_0_r, nskipn_0. reflexivity.
Qed.

Definition is_opaque_b (u : url) : bool := negb (byte_eqb (ser u) (scheme_end u + 1) 47).

Definition has_some {A} (o : option A) : bool := match o with Some _ => true | None => false end.

(* strip_trailing_spaces_from_opaque_path on a record without fragment *)
Lemma strip_step_q dbg u u' : wf_b u = true -> fragment_start u = None ->
  strip_trailing_spaces_from_opaque_path u = Some u' ->
  wf_b u' = true /\ same_front dbg u u' /\ same_main u u' /\ query_start u' = query_start u /\ fragment_start u' = None
  /\ query dbg u' = query dbg u
  /\ (if is_opaque_b u && negb (has_some (query_start u))
      then exists p, path u = Some p /\ path u' = Some (rstrip (fun c => c =? 32) p)
      else u' = u).
Proof.
  intros W Ef H. destruct (query_start u) as [q|] eqn:Eq.
  - unfold strip_trailing_spaces_from_opaque_path in H.
    rewrite (cannot_be_a_base_eval u W) in H. cbn [bindo] in H. rewrite Ef, Eq in H.
    assert (u' = u) as -> by (destruct (negb (negb (byte_eqb (ser u) (scheme_end u + 1) 47))); congruence).
    cbn [has_some negb]. rewrite andb_false_r.
    splits; fin.
  - destruct (strip_step dbg u u' W Ef Eq H) as (W' & SF & SM & Eq' & Ef' & P).
    split; [exact W'|]. split; [exact SF|]. split; [exact SM|]. split; [exact Eq'|]. split; [exact Ef'|].
    split.
    + rewrite (query_eval dbg u' W'), (query_eval dbg u W), Eq', Eq. reflexivity.
    + unfold is_opaque_b. cbn [has_some negb]. rewrite andb_true_r.
      destruct (byte_eqb (ser u) (scheme_end u + 1) 47); cbn [negb]; exact P.
Qed.

Lemma strip_total u : wf_b u = true -> exists u', strip_trailing_spaces_from_opaque_path u = Some u'.
Proof.
  intros W. unfold strip_trailing_spaces_from_opaque_path. rewrite (cannot_be_a_base_eval u W). cbn [bindo].
  destruct (negb (negb (byte_eqb (ser u) (scheme_end u + 1) 47))); [eexists; reflexivity|].
  destruct (fragment_start u); [eexists; reflexivity|]. destruct (query_start u); eexists; reflexivity.
Qed.

(* take_fragment *)
Lemma take_fragment_eval dbg u : wf_b u = true ->
  take_fragment dbg u =
  Some (match fragment_start u with
        | Some f => (cut_fragment u f, Some (nskipn (f + 1) (ser u)))
        | None => (u, None)
        end).
Proof.
  intros W. unfold take_fragment. destruct (fragment_start u) as [f|] eqn:Ef; [|reflexivity].
  pose proof (qf_f (wf_qf_facts u W)) as F. rewrite Ef in F. destruct F as (F1 & F2 & F3).
  rewrite (dbg_byte_is_ok dbg u f 35 F2). cbn [bindo]. unfold u_slice_from. rewrite slice_from_o_some by lia.
  reflexivity.
Qed.

Lemma fragment_value dbg u f : wf_b u = true -> fragment_start u = Some f ->
  fragment dbg u = Some (Some (nskipn (f + 1) (ser u))).
Proof.
  intros W Ef. rewrite (fragment_eval dbg u W), Ef. do 2 f_equal. unfold piece. cbn [pidx]. rewrite Ef.
  apply nfirstn_all. rewrite nlen_nskipn. lia.
Qed.

Lemma byte47_trunc l a i c : i <= a -> nnth l a = Some c -> c <> 47 ->
  byte_eqb (nfirstn a l) i 47 = byte_eqb l i 47.
Proof.
  intros Hi Ha Hc. pose proof (nnth_lt _ _ _ Ha) as Hlt.
  destruct (N.lt_ge_cases i a) as [Hc1|Hc1].
  - apply (pre_byte_eqb a); [apply agree_pre_trunc | exact Hc1].
  - assert (i = a) as -> by lia.
    rewrite (byte_eqb_false_of l a 47) by congruence.
    apply byte_eqb_false_of. intros X. apply nnth_lt in X. rewrite nlen_nfirstn in X by lia. lia.
Qed.

Definition opaque_strip_applies (u : url) : bool := is_opaque_b u && negb (has_some (query_start u)).

Theorem set_fragment_ok dbg u frag : wf_b u = true ->
  exists u', set_fragment dbg u frag = Some u'
  /\ wf_b u' = true /\ same_front dbg u u' /\ same_main u u'
  /\ query dbg u' = query dbg u
  /\ fragment dbg u' = Some (match frag with Some x => Some (tnl_text T_FRAGMENT x) | None => None end)
  /\ (match frag with
      | Some _ => path u' = path u
      | None => if opaque_strip_applies u
                then exists p, path u = Some p /\ path u' = Some (rstrip (fun c => c =? 32) p)
                else path u' = path u
      end).
Proof.
  intros W. unfold set_fragment.
  (* first bring the record into the form "no fragment" *)
  assert (exists u1, wf_b u1 = true /\ fragment_start u1 = None /\ same_front dbg u u1 /\ same_main u u1
                     /\ path u1 = path u /\ query dbg u1 = query dbg u /\ query_start u1 = query_start u
                     /\ is_opaque_b u1 = is_opaque_b u
                     /\ (match fragment_start u with
                         | Some start => dbg_byte_is dbg u start 35 ;;; Some (truncate (ser u) start)
                         | None => Some (ser u)
                         end) = Some (ser u1)
                     /\ set_fragment_start (set_ser u (ser u1)) None = u1) as (u1 & W1 & Ef1 & SF1 & SM1 & P1 & Q1 & Qs1 & Op1 & E1 & R1).
  { destruct (fragment_start u) as [f|] eqn:Ef.
    - destruct (cut_fragment_step dbg u f W Ef) as (W1 & SF1 & SM1 & P1 & Q1 & Qs1 & Ef1 & Es1 & Hlt & Hb).
      exists (cut_fragment u f). splits; fin.
      + unfold is_opaque_b, cut_fragment, truncate. rec_simpl.
        pose proof (wf_se_lt_ps u W). pose proof (qf_f (wf_qf_facts u W)) as F. rewrite Ef in F.
        rewrite (byte47_trunc _ f _ 35) by (try lia; exact Hb). reflexivity.
      + rewrite (dbg_byte_is_ok dbg u f 35) by (apply byte_eqb_true_iff; exact Hb). reflexivity.
    - exists u. splits; fin. destruct u; cbn in *; subst; reflexivity. }
  rewrite E1. cbn [bindo]. destruct frag as [x|].
  - (* Some x : append the encoded text *)
    destruct (add_fragment_step dbg u1 (tnl_text T_FRAGMENT x) W1 Ef1) as (W2 & SF2 & SM2 & P2 & Q2 & Qs2 & F2).
    exists (add_fragment u1 (tnl_text T_FRAGMENT x)). split.
    + f_equal. rewrite parse_fragment_text. rewrite <- app_assoc. cbn [app].
      rewrite <- R1. unfold add_fragment. rec_simpl. destruct u; reflexivity.
    + split; [exact W2|]. split; [eapply same_front_trans; eassumption|]. split; [eapply same_main_trans; eassumption|].
      split; [congruence|]. split; [exact F2|]. congruence.
  - (* None : strip *)
    rewrite R1. destruct (strip_total u1 W1) as (u2 & E2). exists u2. split; [exact E2|].
    destruct (strip_step_q dbg u1 u2 W1 Ef1 E2) as (W2 & SF2 & SM2 & Qs2 & Ef2 & Q2 & P2).
    split; [exact W2|]. split; [eapply same_front_trans; eassumption|]. split; [eapply same_main_trans; eassumption|].
    split; [congruence|]. split; [rewrite (fragment_eval dbg u2 W2), Ef2; reflexivity|].
    unfold opaque_strip_applies. rewrite <- Op1, <- Qs1.
    destruct (is_opaque_b u1 && negb (has_some (query_start u1))).
    + destruct P2 as (p & Pa & Pb). exists p. split; [congruence | exact Pb].
    + subst u2. exact P1.
Qed.

Definition query_text (u : url) (x : list N) : list N :=
  tnl_text (query_set (scheme_type_of (nfirstn (scheme_end u) (ser u)))) (input_new_trim_tnl x).

Theorem set_query_ok dbg u q : wf_b u = true ->
  match q with Some x => usv_list x | None => True end ->
  exists u', set_query dbg u q = Some u'
  /\ wf_b u' = true /\ same_front dbg u u' /\ same_main u u'
  /\ fragment dbg u' = fragment dbg u
  /\ query dbg u' = Some (match q with Some x => Some (query_text u x) | None => None end)
  /\ (match q with
      | Some _ => path u' = path u
      | None => if is_opaque_b u && negb (has_some (fragment_start u))
                then exists p, path u = Some p /\ path u' = Some (rstrip (fun c => c =? 32) p)
                else path u' = path u
      end).
Proof.
  intros W Hq. unfold set_query. rewrite (take_fragment_eval dbg u W). cbn [bindo].
  (* u1 : fragment removed *)
  set (u1 := match fragment_start u with Some f => cut_fragment u f | None => u end).
  set (frag := match fragment_start u with Some f => Some (nskipn (f + 1) (ser u)) | None => None end).
  replace (match fragment_start u with
           | Some f => (cut_fragment u f, Some (nskipn (f + 1) (ser u)))
           | None => (u, None) end) with (u1, frag) by (subst u1 frag; destruct (fragment_start u); reflexivity).
  assert (wf_b u1 = true /\ fragment_start u1 = None /\ same_front dbg u u1 /\ same_main u u1
          /\ path u1 = path u /\ query_start u1 = query_start u /\ is_opaque_b u1 = is_opaque_b u
          /\ fragment dbg u = Some frag) as (W1 & Ef1 & SF1 & SM1 & P1 & Qs1 & Op1 & Fv).
  { subst u1 frag. destruct (fragment_start u) as [f|] eqn:Ef.
    - destruct (cut_fragment_step dbg u f W Ef) as (W1 & SF1 & SM1 & P1 & Q1 & Qs1 & Ef1 & Es1 & Hlt & Hb).
      splits; fin.
      + unfold is_opaque_b, cut_fragment, truncate. rec_simpl.
        pose proof (wf_se_lt_ps u W). pose proof (qf_f (wf_qf_facts u W)) as F. rewrite Ef in F.
        rewrite (byte47_trunc _ f _ 35) by (try lia; exact Hb). reflexivity.
      + apply fragment_value; assumption.
    - splits; fin. rewrite (fragment_eval dbg u W), Ef. reflexivity. }
  cbn beta iota.
  (* u2 : query removed *)
  set (u2 := match query_start u1 with Some q0 => cut_query u1 q0 | None => u1 end).
  assert ((match query_start u1 with
           | Some start => dbg_byte_is dbg u1 start 63 ;;; Some (set_query_start (set_ser u1 (truncate (ser u1) start)) None)
           | None => Some u1 end) = Some u2
          /\ wf_b u2 = true /\ fragment_start u2 = None /\ query_start u2 = None /\ same_front dbg u1 u2 /\ same_main u1 u2
          /\ path u2 = path u1 /\ is_opaque_b u2 = is_opaque_b u1) as (E2 & W2 & Ef2 & Eq2 & SF2 & SM2 & P2 & Op2).
  { subst u2. destruct (query_start u1) as [q0|] eqn:Eq1.
    - destruct (cut_query_step dbg u1 q0 W1 Ef1 Eq1) as (W2 & SF2 & SM2 & P2 & Eq2 & Ef2 & Es2 & Hlt).
      pose proof (qf_q (wf_qf_facts u1 W1)) as F. rewrite Eq1 in F. destruct F as (Fa & Fb & Fc).
      rewrite (dbg_byte_is_ok dbg u1 q0 63 Fb). splits; fin.
      unfold is_opaque_b, cut_query, truncate. rec_simpl.
      pose proof (wf_se_lt_ps u1 W1).
      rewrite (byte47_trunc _ q0 _ 63) by (try lia; apply byte_eqb_nnth; exact Fb). reflexivity.
    - splits; fin. }
  rewrite E2. cbn [bindo].
  assert (scheme_end u2 = scheme_end u /\ nfirstn (scheme_end u2) (ser u2) = nfirstn (scheme_end u) (ser u)) as [Ese Esch].
  { destruct SM1 as (A & _). destruct SM2 as (B & _). split; [congruence|].
    destruct SF1 as (S1 & _). destruct SF2 as (S2 & _).
    rewrite (scheme_eval u W), (scheme_eval u1 W1) in S1. rewrite (scheme_eval u1 W1), (scheme_eval u2 W2) in S2.
    unfold piece in S1, S2. cbn [pidx] in S1, S2. rewrite !N.sub_0_r, !nskipn_0 in S1, S2. congruence. }
  (* u3 : new query or strip *)
  assert (exists u3,
    (match q with
     | Some input =>
         st <- u_scheme_type u2 ;;
         let '(s, _) := parse_query None CSetter st (scheme_end u2) (ser u2 ++ [63]) (input_new_trim_tnl input) in
         Some (set_query_start (set_ser u2 s) (Some (nlen (ser u2))))
     | None => match frag with None => strip_trailing_spaces_from_opaque_path u2 | Some _ => Some u2 end
     end) = Some u3
    /\ wf_b u3 = true /\ fragment_start u3 = None /\ same_front dbg u2 u3 /\ same_main u2 u3
    /\ query dbg u3 = Some (match q with Some x => Some (query_text u x) | None => None end)
    /\ (match q with
        | Some _ => path u3 = path u2
        | None => if is_opaque_b u2 && negb (has_some frag)
                  then exists p, path u2 = Some p /\ path u3 = Some (rstrip (fun c => c =? 32) p)
                  else path u3 = path u2
        end)) as (u3 & E3 & W3 & Ef3 & SF3 & SM3 & Q3 & P3).
  { destruct q as [x|].
    - rewrite (u_scheme_type_eval u2 W2). cbn [bindo]. rewrite parse_query_text. rewrite <- app_assoc. cbn [app].
      set (txt := tnl_text (query_set (scheme_type_of (nfirstn (scheme_end u2) (ser u2)))) (input_new_trim_tnl x)).
      assert (forallb no_h txt = true) as Hh.
      { subst txt. apply query_text_no_hash. apply trim_matches_usv. exact Hq. }
      destruct (add_query_step dbg u2 txt W2 Ef2 Eq2 Hh) as (W3 & SF3 & SM3 & P3 & Q3 & Ef3).
      exists (add_query u2 txt). splits; fin.
      rewrite Q3. unfold query_text. subst txt. rewrite Esch. reflexivity.
    - destruct frag as [ft|] eqn:Efr.
      + exists u2. cbn [has_some negb]. rewrite andb_false_r.
        splits; fin.
        rewrite (query_eval dbg u2 W2), Eq2. reflexivity.
      + destruct (strip_total u2 W2) as (u3 & E3). exists u3. split; [exact E3|].
        destruct (strip_step_q dbg u2 u3 W2 Ef2 E3) as (W3 & SF3 & SM3 & Qs3 & Ef3 & Q3 & P3).
        splits; fin.
        * rewrite Q3, (query_eval dbg u2 W2), Eq2. reflexivity.
        * rewrite Eq2 in P3. cbn [has_some negb] in *. rewrite andb_true_r in *.
          destruct (is_opaque_b u2); [exact P3 | subst u3; reflexivity]. }
  rewrite E3. cbn [bindo].
  (* u4 : fragment restored *)
  unfold restore_already_parsed_fragment.
  destruct frag as [ft|] eqn:Efr.
  - rewrite Ef3. cbn [assert_o bindo].
    destruct (add_fragment_step dbg u3 ft W3 Ef3) as (W4 & SF4 & SM4 & P4 & Q4 & Qs4 & F4).
    exists (add_fragment u3 ft). split; [reflexivity|].
    split; [exact W4|].
    split; [eapply same_front_trans; [eassumption|]; eapply same_front_trans; [eassumption|]; eapply same_front_trans; eassumption|].
    split; [eapply same_main_trans; [eassumption|]; eapply same_main_trans; [eassumption|]; eapply same_main_trans; eassumption|].
    split; [congruence|]. split; [congruence|].
    assert (has_some (fragment_start u) = true) as Hf.
    { destruct (fragment_start u); [reflexivity|]. subst frag. discriminate. }
    rewrite Hf. cbn [negb]. rewrite andb_false_r.
    cbn [has_some negb] in P3. rewrite andb_false_r in P3.
    destruct q; congruence.
  - exists u3. split; [reflexivity|]. split; [exact W3|].
    split; [eapply same_front_trans; [eassumption|]; eapply same_front_trans; eassumption|].
    split; [eapply same_main_trans; [eassumption|]; eapply same_main_trans; eassumption|].
    split; [rewrite (fragment_eval dbg u3 W3), Ef3; symmetry; exact Fv|]. split; [exact Q3|].
    assert (has_some (fragment_start u) = false) as Hf.
    { destruct (fragment_start u); [|reflexivity]. subst frag. discriminate. }
    rewrite Hf. cbn [has_some negb] in *. rewrite andb_true_r in *.
    destruct q; [congruence|]. rewrite <- Op1, <- Op2.
    destruct (is_opaque_b u2).
    + destruct P3 as (p & Pa & Pb). exists p. split; [congruence | exact Pb].
    + congruence.
Qed.
