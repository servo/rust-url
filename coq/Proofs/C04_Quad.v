(* Proofs/C04_Quad.v - finding F-C04-9 of the cost model for ALL n (induction, not computation): a MIME type with n
   pairwise distinct parameter names p0, p1, ... is parsed into n parameters and costs at least n (n - 1) / 2 steps
   (contains() scans the k parameters collected so far).  The proof is made once, for the family mime_distinct_f F whose
   counter has at most F decimal digits (family_parse); its names are pairwise distinct below 10^F.
   The family mime_distinct of Proofs/C04_CostMime.v is F = 10: f_c04_9_upto, mime_distinct_n_params for n <= 10^10
   (input length <= 14 n + 3: mime_distinct_len); mime_distinct_u takes F = n, enough for every n (f_c04_9_all_n).  The
   two coincide where both have enough digits (mime_distinct_u_12). *)
From RU Require Import Base.Prelude Base.Utf8 Base.Utf8Facts Gen.Tables Model.HostT Model.UrlRecord Proofs.ListN
  Model.Mime Proofs.C19_Tables Proofs.C19_Pure Proofs.C19_Normal Proofs.C19_RT Proofs.C02_Enc Proofs.C04_CostMime.

(* ---------------------------------------------------------------- decimal digits *)
Definition isdig (d : N) : Prop := 48 <= d <= 57.

Lemma digits_rev_dig f : forall n, Forall isdig (digits_rev f n).
Proof.
  induction f as [|f IH]; intros n; cbn [digits_rev]; [constructor|].
  constructor.
  - unfold isdig. pose proof (N.mod_upper_bound n 10 ltac:(lia)). lia.
  - destruct (n / 10 =? 0); [constructor | apply IH].
Qed.

(* the number a reversed digit string stands for *)
Fixpoint digits_val (ds : list N) : N := match ds with [] => 0 | d :: r => (d - 48) + 10 * digits_val r end.

Lemma digits_val_rev f : forall n, n < 10 ^ N.of_nat f -> digits_val (digits_rev f n) = n.
Proof.
  induction f as [|f IH]; intros n Hn; [cbn in *; lia|].
  rewrite Nat2N.inj_succ, N.pow_succ_r' in Hn. cbn [digits_rev digits_val].
  pose proof (N.div_mod n 10 ltac:(lia)) as D.
  destruct (n / 10 =? 0) eqn:Z; [cbn [digits_val]; lia|].
  rewrite IH by (apply N.div_lt_upper_bound; lia). lia.
Qed.

Lemma digits_rev_inj f a b : a < 10 ^ N.of_nat f -> b < 10 ^ N.of_nat f -> digits_rev f a = digits_rev f b -> a = b.
Proof. intros Ha Hb E. rewrite <- (digits_val_rev f a Ha), <- (digits_val_rev f b Hb), E. reflexivity. Qed.

Lemma dig_cases d : isdig d -> d = 48 \/ d = 49 \/ d = 50 \/ d = 51 \/ d = 52 \/ d = 53 \/ d = 54 \/ d = 55 \/ d = 56 \/ d = 57.
Proof. unfold isdig. lia. Qed.
Ltac dig_sweep H := apply dig_cases in H; repeat (destruct H as [H|H]; [subst; reflexivity|]); subst; reflexivity.

Lemma dig_tchar d : isdig d -> rfc7230_tchar d = true.
Proof. intros H. dig_sweep H. Qed.
Lemma dig_lower d : isdig d -> to_lower d = d.
Proof. intros H. dig_sweep H. Qed.

(* ---------------------------------------------------------------- case-insensitive comparison *)
Lemma bytes_eq_ic_map a : forall b, bytes_eq_ignore_ascii_case a b = true -> map to_lower a = map to_lower b.
Proof.
  induction a as [|x a IH]; intros [|y b] H; cbn [bytes_eq_ignore_ascii_case] in H; try discriminate; [reflexivity|].
  apply andb_true_iff in H. destruct H as [H1 H2]. apply N.eqb_eq in H1. cbn [map]. rewrite H1, (IH b H2). reflexivity.
Qed.

Lemma map_fix (f : N -> N) l : Forall (fun c => f c = c) l -> map f l = l.
Proof. induction 1 as [|c l Hc _ IH]; [reflexivity|]. cbn [map]. rewrite Hc, IH. reflexivity. Qed.

Section Family.
Variable F : nat.

Definition dec (j : nat) : list N := rev (digits_rev F (N.of_nat j)).
Definition pname (j : nat) : list N := 112 :: dec j.
Definition piece (j : nat) : list N := pname j ++ [61; 49].
Fixpoint dparams (n : nat) : list N :=
  match n with O => [] | S k => dparams k ++ [59; 112] ++ dec k ++ [61; 49] end.
Definition pk (k : nat) : plist := map (fun j => (pname j, [49])) (seq 0 k).

Definition nmc (c : N) : Prop := c = 112 \/ isdig c.
Lemma pname_chars j : Forall nmc (pname j).
Proof.
  unfold pname, dec. constructor; [left; reflexivity|]. apply Forall_rev.
  eapply Forall_impl; [|apply digits_rev_dig]. intros d H. right. exact H.
Qed.
Lemma nmc_tchar c : nmc c -> rfc7230_tchar c = true.
Proof. intros [->|H]; [reflexivity|apply dig_tchar; exact H]. Qed.
Lemma nmc_lower c : nmc c -> to_lower c = c.
Proof. intros [->|H]; [reflexivity|apply dig_lower; exact H]. Qed.

Lemma pname_tokens j : tokens (pname j) = true.
Proof.
  unfold tokens. apply forallb_forall. intros c Hc. apply nmc_tchar.
  pose proof (pname_chars j) as H. rewrite Forall_forall in H. apply H. exact Hc.
Qed.
Lemma pname_lower j : to_ascii_lowercase (pname j) = pname j.
Proof. unfold to_ascii_lowercase. apply map_fix. eapply Forall_impl; [|apply pname_chars]. exact nmc_lower. Qed.

Lemma pname_inj i j : N.of_nat i < 10 ^ N.of_nat F -> N.of_nat j < 10 ^ N.of_nat F -> pname i = pname j -> i = j.
Proof.
  intros Hi Hj E. unfold pname, dec in E. inversion E as [E1].
  apply (f_equal (@rev N)) in E1. rewrite !rev_involutive in E1.
  apply digits_rev_inj in E1; [lia|assumption|assumption].
Qed.

Lemma pname_neq_ic i j : N.of_nat i < 10 ^ N.of_nat F -> N.of_nat j < 10 ^ N.of_nat F -> i <> j ->
  eq_ignore_ascii_case (pname i) (pname j) = false.
Proof.
  intros Hi Hj Hne. destruct (eq_ignore_ascii_case (pname i) (pname j)) eqn:E; [|reflexivity]. exfalso.
  unfold eq_ignore_ascii_case in E.
  rewrite !utf8_encode_ascii in E by (apply tokens_ascii; apply pname_tokens).
  apply bytes_eq_ic_map in E. fold (to_ascii_lowercase (pname i)) in E. fold (to_ascii_lowercase (pname j)) in E.
  rewrite !pname_lower in E. apply Hne. apply pname_inj; assumption.
Qed.

Lemma pk_succ k : pk (S k) = pk k ++ [(pname k, [49])].
Proof. unfold pk. rewrite seq_S, map_app. reflexivity. Qed.
Lemma pk_len k : plen (pk k) = N.of_nat k.
Proof. unfold plen, pk. rewrite map_length, seq_length. reflexivity. Qed.

Lemma pk_contains k : N.of_nat k < 10 ^ N.of_nat F -> contains (pk k) (pname k) = false.
Proof.
  intros Hk. unfold contains, pk. destruct (existsb _ _) eqn:E; [|reflexivity]. exfalso.
  apply existsb_exists in E. destruct E as (p & Hin & Hp). apply in_map_iff in Hin. destruct Hin as (j & <- & Hj).
  apply in_seq in Hj. cbn [fst] in Hp. rewrite pname_neq_ic in Hp; [discriminate| lia | exact Hk | lia].
Qed.

Lemma pname_valid k : N.of_nat k < 10 ^ N.of_nat F -> p_name_valid (pk k) (pname k) = true.
Proof. intros Hk. unfold p_name_valid. rewrite pname_tokens, (pk_contains k Hk). reflexivity. Qed.

Lemma piece_split j : split_once 61 (trim_start (piece j)) = (pname j, Some [49]).
Proof.
  unfold piece. unfold pname at 1. cbn [app]. rewrite trim_start_head by reflexivity.
  change (112 :: dec j ++ [61; 49]) with (pname j ++ 61 :: [49]). apply split_once_app_sep.
  apply tokens_nosep; [reflexivity|apply pname_tokens].
Qed.

(* one round of the parameter loop on the piece k, the parameters 0 .. k-1 collected: the name is new, the parameter is
   added, and contains() has looked at all of them *)
Lemma loop_step k fuel rest : N.of_nat k < 10 ^ N.of_nat F ->
  p_params_loop (S fuel) (piece k :: rest) (pk k) = p_params_loop fuel rest (pk (S k))
  /\ p_params_cost (S fuel) (piece k :: rest) (pk k)
     = 2 + 5 * nlen (piece k) + contains_cost (pk k) (pname k) + p_params_cost fuel rest (pk (S k)).
Proof.
  intros Hk. cbn [p_params_loop p_params_cost]. rewrite piece_split. cbv zeta.
  rewrite (pname_valid k Hk), pname_tokens, pname_lower.
  change (strip_prefix_quote [49]) with (@None (list N)). cbv iota.
  change (trim_end [49]) with [49]. change (is_empty [49]) with false. change (valid_value [49]) with true.
  change (is_empty (pname k)) with false. cbn [negb orb andb]. cbv iota.
  rewrite <- pk_succ. split; reflexivity.
Qed.

(* the loop on the pieces k .. k+m-1 with the parameters 0 .. k-1 already collected *)
Lemma loop_pk m : forall k fuel, (m < fuel)%nat -> N.of_nat (k + m) <= 10 ^ N.of_nat F ->
  p_params_loop fuel (map piece (seq k m)) (pk k) = Ok (pk (k + m))
  /\ N.of_nat m * N.of_nat m + 2 * N.of_nat k * N.of_nat m
     <= 2 * p_params_cost fuel (map piece (seq k m)) (pk k) + N.of_nat m.
Proof.
  induction m as [|m IH]; intros k fuel Hf Hk; (destruct fuel as [|fuel]; [lia|]).
  - rewrite Nat.add_0_r. split; [reflexivity | cbn [N.of_nat]; lia].
  - cbn [seq map]. destruct (loop_step k fuel (map piece (seq (S k) m)) ltac:(lia)) as [-> ->].
    rewrite <- Nat.add_succ_comm in *. destruct (IH (S k) fuel ltac:(lia) Hk) as [-> H]. split; [reflexivity|].
    pose proof (contains_cost_ge (pk k) (pname k)) as Hc. rewrite pk_len in Hc.
    rewrite !Nat2N.inj_succ in *. nia.
Qed.

Lemma dparams_pieces n : pieces (dparams n) = [] :: map piece (seq 0 n).
Proof.
  induction n as [|n IH]; [reflexivity|]. cbn [dparams].
  change ([59; 112] ++ dec n ++ [61; 49]) with (59 :: piece n). rewrite pieces_app_sep, IH.
  rewrite pieces_nosep.
  - rewrite seq_S, map_app. reflexivity.
  - unfold piece. unfold nosep. rewrite forallb_app. apply andb_true_iff. split; [|reflexivity].
    apply (tokens_nosep 59); [reflexivity|apply pname_tokens].
Qed.

Lemma dparams_head n : exists r, dparams (S n) = 59 :: r /\ pieces r = map piece (seq 0 (S n)).
Proof.
  pose proof (dparams_pieces (S n)) as H. destruct (dparams (S n)) as [|c r] eqn:E.
  - cbn in H. discriminate.
  - unfold pieces in H. rewrite split_all_cons in H. destruct (c =? 59) eqn:Ec.
    + apply N.eqb_eq in Ec. subst c. exists r. split; [reflexivity|]. cbn [fst snd] in H. injection H as H1 H2. unfold pieces. rewrite H1, H2. reflexivity.
    + cbn [fst snd] in H. discriminate.
Qed.

Lemma dparams_last n : exists r, dparams (S n) = r ++ [49].
Proof. cbn [dparams]. exists (dparams n ++ [59; 112] ++ dec n ++ [61]). rewrite <- !app_assoc. reflexivity. Qed.

Lemma dparams_ascii n : Forall (fun c => c < 128) (dparams n).
Proof.
  induction n as [|n IH]; [constructor|]. cbn [dparams]. apply Forall_app. split; [exact IH|].
  apply Forall_app. split; [repeat constructor; lia|]. apply Forall_app. split; [|repeat constructor; lia].
  unfold dec. apply Forall_rev. eapply Forall_impl; [|apply digits_rev_dig]. intros d [_ Hd]. cbv beta. lia.
Qed.

Definition mime_distinct_f (n : nat) : list N := [97; 47; 98] ++ dparams n.

Lemma mime_distinct_f_usv n : usv_list (mime_distinct_f n).
Proof.
  unfold mime_distinct_f, usv_list. apply Forall_app. split; [repeat constructor; unfold is_usv; lia|].
  eapply Forall_impl; [|apply dparams_ascii]. intros c Hc. cbv beta in Hc. unfold is_usv. lia.
Qed.

(* the member n of the family is the type a/b with the n parameters p0 = 1, ..., p<n-1> = 1, and costs n (n - 1) / 2 *)
Theorem family_parse n : N.of_nat n <= 10 ^ N.of_nat F ->
  parse (mime_distinct_f n) = Ok (Some (mk_mime [97] [98] (pk n)))
  /\ N.of_nat n * (N.of_nat n - 1) <= 2 * mime_parse_cost (mime_distinct_f n).
Proof.
  intros Hn. rewrite (parse_spec _ (mime_distinct_f_usv n)).
  destruct n as [|n]; [split; [reflexivity | cbn [N.of_nat]; lia]|].
  destruct (dparams_head n) as (r & Er & Hp). destruct (dparams_last n) as (q & Eq).
  unfold p_parse, mime_parse_cost, mime_distinct_f. cbv zeta.
  assert (Ht : trim_matches ([97; 47; 98] ++ dparams (S n)) = [97] ++ 47 :: [98] ++ 59 :: r).
  { unfold trim_matches. cbn [app]. rewrite trim_start_head by reflexivity.
    rewrite Eq. change (97 :: 47 :: 98 :: q ++ [49]) with ((97 :: 47 :: 98 :: q) ++ [49]).
    rewrite trim_end_snoc by reflexivity. cbn [app]. rewrite <- Eq, Er. reflexivity. }
  rewrite Ht, split_once_app_sep by reflexivity. cbn [snd]. rewrite split_once_app_sep by reflexivity. cbn [snd].
  change (negb (tokens [97] && negb (is_empty [97]))) with false.
  change (negb (tokens (trim_end [98]) && negb (is_empty (trim_end [98])))) with false. cbv iota.
  unfold p_parse_parameters, parse_parameters_cost. unfold pieces in Hp.
  destruct (split_all 59 r) as [p ps]. cbn [fst snd] in Hp. rewrite Hp.
  assert (length ps = n) as ->.
  { apply (f_equal (@length _)) in Hp. rewrite map_length, seq_length in Hp. cbn [length] in Hp. lia. }
  destruct (loop_pk (S n) 0 (S (S n)) ltac:(lia) Hn) as [E H]. change (pk 0) with (@nil (list N * list N)) in E, H.
  rewrite E. split; [reflexivity|]. cbn [N.of_nat] in H |- *. rewrite !Nat2N.inj_succ in *. nia.
Qed.

Theorem f_c04_9_family n : N.of_nat n <= 10 ^ N.of_nat F ->
  N.of_nat n * (N.of_nat n - 1) <= 2 * mime_parse_cost (mime_distinct_f n).
Proof. intros Hn. exact (proj2 (family_parse n Hn)). Qed.
End Family.

Lemma dparams_10 n : distinct_params n = dparams 10 n.
Proof. induction n as [|n IH]; [reflexivity|]. cbn [distinct_params dparams]. rewrite IH. reflexivity. Qed.

(* F-C04-9 for the family of C04_CostMime up to the point where its 10-digit counter wraps *)
Theorem f_c04_9_upto n : N.of_nat n <= 10000000000 ->
  N.of_nat n * (N.of_nat n - 1) <= 2 * mime_parse_cost (mime_distinct n).
Proof.
  intros Hn. unfold mime_distinct. rewrite dparams_10. apply (f_c04_9_family 10 n). exact Hn.
Qed.

Theorem mime_distinct_n_params n : N.of_nat n <= 10000000000 -> n_params (mime_distinct n) = N.of_nat n.
Proof.
  intros Hn. unfold n_params, mime_distinct. rewrite dparams_10.
  change ([97; 47; 98] ++ dparams 10 n) with (mime_distinct_f 10 n). rewrite (proj1 (family_parse 10 n Hn)).
  cbn [m_params]. apply pk_len.
Qed.

(* ... and for ALL n when the counter has as many digits as needed (n digits are enough for n names) *)
Definition mime_distinct_u (n : nat) : list N := mime_distinct_f n n.
Lemma pow10_ge n : N.of_nat n <= 10 ^ N.of_nat n.
Proof.
  induction n as [|n IH]; [cbn; lia|]. rewrite Nat2N.inj_succ, N.pow_succ_r'. lia.
Qed.
Theorem f_c04_9_all_n n : N.of_nat n * (N.of_nat n - 1) <= 2 * mime_parse_cost (mime_distinct_u n).
Proof. apply f_c04_9_family. apply pow10_ge. Qed.

Lemma digits_rev_len f : forall n, (length (digits_rev f n) <= f)%nat.
Proof.
  induction f as [|f IH]; intros n; cbn [digits_rev length]; [lia|].
  destruct (n / 10 =? 0); [cbn [length]; lia|]. specialize (IH (n / 10)). lia.
Qed.
Lemma mime_distinct_len n : nlen (mime_distinct n) <= 14 * N.of_nat n + 3.
Proof.
  unfold mime_distinct. rewrite nlen_app. change (nlen [97; 47; 98]) with 3.
  assert (nlen (distinct_params n) <= 14 * N.of_nat n) as H.
  { induction n as [|n IH]; [cbn; lia|]. cbn [distinct_params]. rewrite !nlen_app.
    change (nlen [59; 112]) with 2. change (nlen [61; 49]) with 2.
    assert (nlen (rev (digits_rev 10 (N.of_nat n))) <= 10).
    { unfold nlen. rewrite rev_length. pose proof (digits_rev_len 10 (N.of_nat n)). lia. }
    rewrite Nat2N.inj_succ. lia. }
  lia.
Qed.
Example mime_distinct_u_12 : mime_distinct_u 12 = mime_distinct 12.
Proof. vm_compute. reflexivity. Qed.
