(* Proofs/C06_Path.v - replacing the path of a well-formed record: the record the path setters build
   (with_path) and what holds of it on every layout; its invariant and frame when the record has an
   authority; then Url::set_path itself. *)
From RU Require Import Base.Prelude Model.UrlRecord Model.Parser Model.Setters Model.WF Proofs.ListN
  Proofs.C03_WF Proofs.C06_List Proofs.C06_WFI Proofs.C06_Tail Proofs.C06_FragQuery Proofs.C06_Suffix
  Proofs.C06_Front Proofs.C06_PathParser.

Definition with_path (u : url) (P : list N) : url :=
  let pe := path_end u in
  let b' := path_start u + nlen P in
  mkUrl (nfirstn (path_start u) (ser u) ++ P ++ nskipn pe (ser u))
        (scheme_end u) (username_end u) (host_start u) (host_end u) (hosti u) (port u) (path_start u)
        (option_map (shift pe b') (query_start u)) (option_map (shift pe b') (fragment_start u)).

(* what stands at the end of the path: the end of the serialization, '?' or '#' *)
Lemma path_end_byte u : wf_b u = true ->
  path_end u = nlen (ser u) \/ byte_eqb (ser u) (path_end u) 63 = true \/ byte_eqb (ser u) (path_end u) 35 = true.
Proof.
  intros W. pose proof (wf_qf_facts u W) as QF. pose proof (qf_q QF) as Q1. pose proof (qf_f QF) as Q2.
  unfold path_end. destruct (query_start u); [tauto|]. destruct (fragment_start u); tauto.
Qed.

(* with_path on any well-formed record *)
Section WithPath.
Variables (dbg : bool) (u : url) (P : list N).
Hypothesis W : wf_b u = true.

Let u' := with_path u P.
Let ps := path_start u.
Let pe := path_end u.
Let b' := path_start u + nlen P.

Lemma with_path_bounds : scheme_end u < ps /\ ps <= pe /\ pe <= nlen (ser u).
Proof. pose proof (wf_se_lt_ps u W). destruct (wf_ps_le_path_end u W). unfold ps, pe. lia. Qed.

Lemma with_path_ser : ser u' = nfirstn ps (ser u) ++ P ++ nskipn pe (ser u).
Proof. reflexivity. Qed.

Lemma with_path_pre : agree_pre ps (ser u) (ser u').
Proof. destruct with_path_bounds as (_ & B1 & B2). rewrite with_path_ser. apply agree_pre_nfirstn. lia. Qed.

Lemma with_path_suf : agree_suf pe b' (ser u) (ser u').
Proof. destruct with_path_bounds as (_ & B1 & B2). rewrite with_path_ser. apply splice_suf. lia. Qed.

Lemma with_path_len : nlen (ser u') = b' + (nlen (ser u) - pe).
Proof. destruct with_path_bounds as (_ & B1 & B2). rewrite with_path_ser. apply splice_len; assumption. Qed.

Lemma with_path_skip : nskipn ps (ser u') = P ++ nskipn pe (ser u).
Proof. destruct with_path_bounds as (_ & B1 & B2). rewrite with_path_ser. apply splice_skip. lia. Qed.

Lemma with_path_end : path_end u' = b'.
Proof.
  destruct with_path_bounds as (_ & B1 & B2). pose proof with_path_len as L.
  rewrite (sfx_path_end u u' pe b' W with_path_suf) by (try reflexivity; unfold pe in *; lia).
  unfold shift. lia.
Qed.

(* behind the new path stands what stood behind the old one *)
Lemma with_path_after : b' = nlen (ser u') \/ byte_eqb (ser u') b' 63 = true \/ byte_eqb (ser u') b' 35 = true.
Proof.
  destruct with_path_bounds as (_ & B1 & B2). pose proof with_path_len as L.
  assert (forall c, byte_eqb (ser u') b' c = byte_eqb (ser u) pe c) as E.
  { intros c. rewrite <- (sfx_byte _ _ _ _ with_path_suf pe c) by lia. f_equal. unfold shift. lia. }
  rewrite !E. destruct (path_end_byte u W) as [H|H]; [left; unfold pe in *; lia | right; exact H].
Qed.

Lemma with_path_qf_ok : forallb no_qh P = true -> qf_ok u'.
Proof.
  intros HP. destruct with_path_bounds as (_ & B1 & B2). pose proof with_path_len as L.
  apply (qf_ok_behind u u' pe b' W with_path_suf); try reflexivity; rewrite ?with_path_end; change (path_start u') with ps;
    try (unfold pe, b', ps in *; lia).
  replace (b' - ps) with (nlen P) by (unfold b', ps; lia). rewrite with_path_skip, nfirstn_app_exact. exact HP.
Qed.

(* the byte at path_start of the new serialization is '/' or what follows the path, never ':' *)
Lemma with_path_byte_ps_not58 : P = [] \/ (exists r, P = 47 :: r) -> byte_eqb (ser u') ps 58 = false.
Proof.
  intros [E|(r & E)].
  - replace ps with b' by (unfold b', ps; rewrite E; apply N.add_0_r).
    apply byte_eqb_false_of. apply (end_byte_not _ _ _ with_path_after); lia.
  - unfold byte_eqb. rewrite <- (N.add_0_r ps), <- nnth_nskipn, with_path_skip, E. reflexivity.
Qed.

Hypothesis W' : wf_b u' = true.

Lemma with_path_query : query dbg u' = query dbg u.
Proof.
  destruct with_path_bounds as (_ & B1 & B2). pose proof with_path_len as L.
  apply (sfx_query u u' pe b' W with_path_suf); try reflexivity; try exact W'; unfold pe in *; lia.
Qed.

Lemma with_path_fragment : fragment dbg u' = fragment dbg u.
Proof.
  destruct with_path_bounds as (_ & B1 & B2). pose proof with_path_len as L.
  apply (sfx_fragment u u' pe b' W with_path_suf); try reflexivity; try exact W'; unfold pe in *; lia.
Qed.

Lemma with_path_path : path u' = Some P.
Proof.
  rewrite (path_eval u' W'). f_equal. unfold piece.
  change (pidx u' AfterPath) with (path_end u'). rewrite with_path_end. cbn [pidx]. change (path_start u') with ps.
  replace (b' - ps) with (nlen P) by (unfold b', ps; lia). rewrite with_path_skip. apply nfirstn_app_exact.
Qed.

End WithPath.

(* the record has an authority *)
Section WithPathAuth.
Variables (dbg : bool) (u : url) (P : list N).
Hypothesis W : wf_b u = true.
Hypothesis Ha : has_authority_b u = true.
Hypothesis HP1 : forallb no_qh P = true.
Hypothesis HP2 : P = [] \/ exists r, P = 47 :: r.

Local Notation u' := (with_path u P).
Local Notation ps := (path_start u).
Local Notation b' := (path_start u + nlen P).

Lemma wp_bounds : scheme_end u + 3 <= username_end u /\ username_end u <= host_start u /\ host_start u <= host_end u
  /\ host_end u <= ps /\ ps <= nlen (ser u).
Proof.
  pose proof (wf_auth_facts u W Ha) as F.
  pose proof (af_ue F); pose proof (af_hs F); pose proof (af_he F); pose proof (af_ps F); pose proof (af_len F). lia.
Qed.

Lemma wp_has_authority : has_authority_b u' = true.
Proof.
  destruct wp_bounds as (B1 & B2 & B3 & B4 & B5).
  rewrite (has_authority_b_pre ps u u' (with_path_pre u P W)) by (try lia; reflexivity). exact Ha.
Qed.

Lemma wp_wf : wf_b u' = true.
Proof.
  destruct wp_bounds as (B1 & B2 & B3 & B4 & B5). pose proof (with_path_len u P W) as Hl.
  pose proof (with_path_pre u P W) as Hpre. destruct (with_path_bounds u P W) as (_ & B6 & B7).
  pose proof W as W0. apply wf_b_iff in W0. rewrite Ha in W0. destruct W0 as (S & (AU & PS) & _).
  apply wf_b_iff. rewrite wp_has_authority. split; [|split; [split|]].
  - apply (scheme_ok_pre ps u u'); [exact Hpre | lia | reflexivity | exact S].
  - destruct AU as (A1 & A2 & A3 & A4 & A5 & U & Hn & Po).
    unfold auth_ok. change (scheme_end u') with (scheme_end u). change (username_end u') with (username_end u).
    change (host_start u') with (host_start u). change (host_end u') with (host_end u).
    change (path_start u') with ps. change (hosti u') with (hosti u).
    split; [lia|]. split; [lia|]. split; [lia|]. split; [lia|]. split; [rewrite Hl; lia|].
    split; [|split; [exact Hn|]].
    + unfold userinfo_ok. change (scheme_end u') with (scheme_end u). change (username_end u') with (username_end u).
      change (host_start u') with (host_start u).
      destruct U as [(U1 & U2 & U3)|[(U1 & U2 & U3)|(U1 & U2)]].
      * left. splits; try assumption.
        destruct (N.eq_dec (username_end u) ps) as [E|E].
        -- rewrite E. exact (with_path_byte_ps_not58 u P W HP2).
        -- rewrite (pre_byte_eqb ps _ _ _ _ Hpre) by lia. exact U3.
      * right. left. pose proof (byte_eqb_lt _ _ _ U3).
        rewrite !(pre_byte_eqb ps _ _ _ _ Hpre) by lia. tauto.
      * right. right. rewrite !(pre_byte_eqb ps _ _ _ _ Hpre) by lia. tauto.
    + unfold port_ok in *. change (port u') with (port u). change (host_end u') with (host_end u). change (path_start u') with ps.
      destruct (port u) as [p|]; [|exact Po]. destruct Po as (P1 & P2 & P3 & P4).
      rewrite (pre_byte_eqb ps _ _ _ _ Hpre) by lia.
      rewrite (pre_piece ps _ _ _ _ Hpre) by lia. tauto.
  - unfold pathstart_ok. change (path_start u') with ps.
    destruct HP2 as [E|(r & E)].
    + (* empty path: followed by nothing, '?' or '#' *)
      assert (b' = ps) as <- by (rewrite E; apply N.add_0_r).
      destruct (with_path_after u P W) as [T|T]; [left; exact T | right; right; exact T].
    + right. left. unfold byte_eqb. rewrite <- (N.add_0_r ps), <- nnth_nskipn, (with_path_skip u P W), E. reflexivity.
  - apply with_path_qf_ok; assumption.
Qed.

Lemma wp_front : same_front dbg u u'.
Proof.
  destruct wp_bounds as (B1 & B2 & B3 & B4 & B5). pose proof (with_path_pre u P W) as Hpre.
  split; [|split; [|split; [|split]]].
  - apply (scheme_same u u' ps W wp_wf Hpre); [reflexivity | lia].
  - apply (username_same dbg u u' ps W wp_wf Ha wp_has_authority Hpre); [reflexivity | reflexivity | lia].
  - apply (password_same dbg u u' ps W wp_wf Ha wp_has_authority Hpre); [reflexivity | reflexivity | lia].
  - rewrite (host_str_eval u' wp_wf), (host_str_eval u W). change (has_host u') with (has_host u).
    destruct (has_host u); [|reflexivity]. do 2 f_equal. unfold piece. cbn [pidx].
    change (host_start u') with (host_start u). change (host_end u') with (host_end u).
    apply (pre_piece ps); [exact Hpre | lia].
  - reflexivity.
Qed.

Lemma wp_query : query dbg u' = query dbg u.
Proof. exact (with_path_query dbg u P W wp_wf). Qed.

Lemma wp_fragment : fragment dbg u' = fragment dbg u.
Proof. exact (with_path_fragment dbg u P W wp_wf). Qed.

Lemma wp_path : path u' = Some P.
Proof. exact (with_path_path u P W wp_wf). Qed.

Lemma wp_host_text_ok : host_text_ok u -> host_text_ok u'.
Proof using W Ha HP2.
  intros HT Hh. change (has_host u') with (has_host u) in Hh. destruct (HT Hh) as (T1 & T2 & T3).
  destruct wp_bounds as (B1 & B2 & B3 & B4 & B5). pose proof (with_path_pre u P W) as Hpre.
  change (host_start u') with (host_start u). change (host_end u') with (host_end u).
  rewrite (pre_byte_eqb ps _ _ _ 58 Hpre), (pre_byte_eqb ps _ _ _ 64 Hpre) by lia. tauto.
Qed.

End WithPathAuth.

(* what parse_path_start (setter context) appends *)
Definition new_path_ok (P : list N) : Prop := forallb no_qh P = true /\ (P = [] \/ exists r, P = 47 :: r).

Lemma loop_skip_tnl dbg ctx st ps l : forall ser seg hh,
  parse_path_loop dbg ctx st ps l ser seg [] hh = parse_path_loop dbg ctx st ps (drop_while is_tnl l) ser seg [] hh.
Proof.
  induction l as [|c r IH]; intros ser seg hh; [reflexivity|].
  cbn [drop_while]. destruct (is_tnl c) eqn:E; [|reflexivity].
  cbn [parse_path_loop]. rewrite E. cbn [push_pending]. apply IH.
Qed.

Section ParsePathStart.
Variables (dbg : bool) (st : scheme_type) (s0 : list N) (ps : N).
Hypothesis Hps : nlen s0 = ps.

Lemma split_at_ps s' : nfirstn ps s' = s0 -> s' = s0 ++ nskipn ps s'.
Proof. intros H. rewrite <- H. symmetry. apply nfirstn_nskipn. Qed.

(* the loop started behind "<s0>/" in a non-file scheme *)
Lemma loop_from_slash l pending seg hh s' hh' rem :
  parse_path_loop dbg CSetter st ps l (s0 ++ [47]) seg pending hh = POk (s', hh', rem) ->
  st_is_file st = false -> ps + 1 <= seg -> usv_list l -> usv_list pending ->
  exists P, s' = s0 ++ P /\ new_path_ok P.
Proof.
  intros H Hf Hseg Hl Hp.
  assert (nlen (s0 ++ [47]) = ps + 1) as L by (rewrite nlen_app, Hps; reflexivity).
  assert (PInv ps (ps + 1) (s0 ++ [47]) (s0 ++ [47])) as I.
  { split; [apply nfirstn_all; lia|]. rewrite <- Hps, nskipn_app_exact. reflexivity. }
  destruct (pinv_loop dbg ps (ps + 1) (s0 ++ [47]) ltac:(lia) ltac:(lia) L CSetter st l eq_refl
              ltac:(intros X; congruence) _ _ _ _ _ _ _ H I Hseg Hl Hp) as (x & Ex & Ix).
  unfold file_path_fixup in Ex. rewrite Hf in Ex. subst x. destruct Ix as [I1 I2].
  assert (nfirstn ps s' = s0) as E0.
  { rewrite <- (nfirstn_nfirstn ps (ps + 1) s') by lia. rewrite I1. rewrite <- Hps. apply nfirstn_app_exact. }
  exists (nskipn ps s'). split; [apply split_at_ps; exact E0|]. split; [exact I2|]. right.
  assert (nnth s' ps = Some 47) as E1.
  { rewrite <- (nnth_nfirstn s' (ps + 1) ps) by lia. rewrite I1. rewrite nnth_app_ge by lia. rewrite Hps, N.sub_diag. reflexivity. }
  rewrite (nskipn_cons_of_nnth _ _ _ E1). eexists. reflexivity.
Qed.

(* the loop in the file scheme: the final fix-up makes the path start with exactly one '/' *)
Lemma loop_file l ser seg hh s' hh' rem :
  parse_path_loop dbg CSetter st ps l ser seg [] hh = POk (s', hh', rem) ->
  st_is_file st = true -> nfirstn ps ser = s0 -> forallb no_qh (nskipn ps ser) = true -> ps <= seg -> usv_list l ->
  exists P, s' = s0 ++ P /\ new_path_ok P.
Proof.
  intros H Hf E0 Eq Hseg Hl.
  assert (PInv ps ps s0 ser) as I by (split; assumption).
  destruct (pinv_loop dbg ps ps s0 ltac:(lia) ltac:(lia) Hps CSetter st l eq_refl
              ltac:(intros _; reflexivity) _ _ _ _ _ _ _ H I Hseg Hl ltac:(constructor)) as (x & Ex & Ix).
  pose proof (pinv_len ps ps s0 ltac:(lia) ltac:(lia) Hps x Ix) as Lx. destruct Ix as [I1 I2].
  unfold file_path_fixup in Ex. rewrite Hf in Ex. rewrite I1 in Ex.
  exists ([47] ++ drop_while is_slash (nskipn ps x)). split; [exact Ex|]. split.
  - cbn [app forallb]. apply drop_while_forallb. exact I2.
  - right. eexists. reflexivity.
Qed.

Theorem parse_path_start_setter p s1 hh rem :
  parse_path_start dbg CSetter st true s0 p = POk (s1, hh, rem) -> usv_list p ->
  (st_is_special st = true -> st_is_file st = false -> ends_with_byte 47 s0 = false) ->
  exists P, s1 = s0 ++ P /\ new_path_ok P.
Proof.
  intros H Hp Hx. unfold parse_path_start in H. rewrite Hps in H.
  unfold inp_split_first, inp_next in H.
  pose proof (drop_while_usv is_tnl p Hp) as Hd.
  assert (nlen (s0 ++ [47]) = ps + 1) as L by (rewrite nlen_app, Hps; reflexivity).
  assert (nfirstn ps (s0 ++ [47]) = s0) as Fp by (rewrite <- Hps; apply nfirstn_app_exact).
  assert (forallb no_qh (nskipn ps (s0 ++ [47])) = true) as Fq by (rewrite <- Hps, nskipn_app_exact; reflexivity).
  assert (nfirstn ps s0 = s0) as Fp0 by (apply nfirstn_all; lia).
  assert (forallb no_qh (nskipn ps s0) = true) as Fq0 by (rewrite nskipn_all by lia; reflexivity).
  destruct (st_is_special st) eqn:Esp.
  - destruct (st_is_file st) eqn:Ef.
    + (* file: every branch ends in the fix-up *)
      unfold parse_path in H.
      destruct (drop_while is_tnl p) as [|c r] eqn:Ed.
      * destruct (negb (ends_with_byte 47 s0)).
        -- eapply loop_file; [exact H | exact Ef | exact Fp | exact Fq | lia | exact Hp].
        -- eapply loop_file; [exact H | exact Ef | exact Fp0 | exact Fq0 | lia | exact Hp].
      * pose proof (Forall_inv Hd) as Hc; pose proof (Forall_inv_tail Hd : usv_list r) as Hr.
        destruct (negb (ends_with_byte 47 s0)).
        -- destruct (is_slash_or_bslash c).
           ++ eapply loop_file; [exact H | exact Ef | exact Fp | exact Fq | lia | exact Hr].
           ++ eapply loop_file; [exact H | exact Ef | exact Fp | exact Fq | lia | exact Hp].
        -- eapply loop_file; [exact H | exact Ef | exact Fp0 | exact Fq0 | lia | exact Hp].
    + rewrite (Hx eq_refl eq_refl) in H. cbn [negb] in H. unfold parse_path in H. rewrite L in H.
      destruct (drop_while is_tnl p) as [|c r] eqn:Ed.
      * eapply loop_from_slash; [exact H | exact Ef | lia | exact Hp | constructor].
      * pose proof (Forall_inv Hd) as Hc; pose proof (Forall_inv_tail Hd : usv_list r) as Hr. destruct (is_slash_or_bslash c).
        -- eapply loop_from_slash; [exact H | exact Ef | lia | exact Hr | constructor].
        -- eapply loop_from_slash; [exact H | exact Ef | lia | exact Hp | constructor].
  - assert (st_is_file st = false) as Ef by (destruct st; try discriminate; reflexivity).
    unfold parse_path in H.
    destruct (drop_while is_tnl p) as [|c r] eqn:Ed.
    + (* no character at all: nothing is written *)
      rewrite loop_skip_tnl, Ed in H. cbn [parse_path_loop push_pending] in H.
      unfold finish_segment in H. rewrite slice_o_some in H by lia. cbn [of_option pbind] in H.
      rewrite N.sub_diag in H. cbn [nfirstn N.to_nat firstn is_double_dot is_single_dot] in H.
      rewrite Ef in H. cbn [andb pbind] in H. unfold file_path_fixup in H. rewrite Ef in H.
      inversion H as [[E1 E2 E3]]. exists []. split; [symmetry; apply app_nil_r|]. split; [reflexivity | left; reflexivity].
    + pose proof (Forall_inv Hd) as Hc; pose proof (Forall_inv_tail Hd : usv_list r) as Hr.
      destruct ((c =? 63) || (c =? 35)).
      { inversion H as [[E1 E2 E3]]. exists []. split; [symmetry; apply app_nil_r|]. split; [reflexivity | left; reflexivity]. }
      destruct (c =? 47) eqn:E47.
      * apply N.eqb_eq in E47. rewrite E47 in *.
        rewrite loop_skip_tnl, Ed in H. cbn [parse_path_loop] in H.
        change (is_tnl 47) with false in H. cbn [ctx_eqb negb andb push_pending] in H.
        rewrite N.eqb_refl in H. cbn [orb] in H.
        unfold finish_segment in H. rewrite L in H. rewrite ?Hps in H.
        replace (ps + 1 - 1) with ps in H by lia.
        rewrite slice_o_some in H by lia. cbn [of_option pbind] in H.
        rewrite N.sub_diag in H. cbn [nfirstn N.to_nat firstn is_double_dot is_single_dot] in H.
        rewrite Ef in H. cbn [andb pbind] in H. rewrite L in H.
        eapply loop_from_slash; [exact H | exact Ef | lia | exact Hr | constructor].
      * rewrite L in H. eapply loop_from_slash; [exact H | exact Ef | lia | exact Hp | constructor].
Qed.

End ParsePathStart.

(* the text in front of the path of a special, non-file URL does not end in '/' (host text and port
   digits never do; wf_b itself does not say so) *)
Definition auth_end_ok (u : url) : Prop :=
  let st := scheme_type_of (nfirstn (scheme_end u) (ser u)) in
  st_is_special st = true -> st_is_file st = false ->
  ends_with_byte 47 (nfirstn (path_start u) (ser u)) = false.

Lemma take_after_path_eval u : wf_b u = true ->
  take_after_path u = Some (set_ser u (nfirstn (path_end u) (ser u)), nskipn (path_end u) (ser u)).
Proof.
  intros W. pose proof (wf_qf_facts u W) as QF. pose proof (qf_q QF) as Q1. pose proof (qf_f QF) as Q2.
  unfold take_after_path, path_end, u_slice_from, truncate.
  destruct (query_start u) as [q|] eqn:Eq.
  - rewrite slice_from_o_some by lia. reflexivity.
  - destruct (fragment_start u) as [f|] eqn:Ef.
    + rewrite slice_from_o_some by lia. reflexivity.
    + rewrite nfirstn_all, nskipn_all by lia. destruct u; reflexivity.
Qed.

(* evaluation: for a non-opaque URL the result is the record with_path builds from the text
   parse_path_start appends *)
Lemma set_path_eval dbg u p u' : wf_b u = true -> byte_eqb (ser u) (scheme_end u + 1) 47 = true ->
  usv_list p -> auth_end_ok u -> set_path dbg u p = Some u' ->
  exists P hh rem, u' = with_path u P /\ new_path_ok P
    /\ parse_path_start dbg CSetter (scheme_type_of (nfirstn (scheme_end u) (ser u))) true
         (nfirstn (path_start u) (ser u)) p
       = POk (nfirstn (path_start u) (ser u) ++ P, hh, rem).
Proof.
  intros W Hsl Hp Hx H. unfold set_path in H. rewrite (take_after_path_eval u W) in H. cbn [bindo] in H.
  destruct (wf_ps_le_path_end u W) as [B5 B6]. pose proof (wf_se_lt_ps u W) as B0.
  destruct (wf_scheme_facts u W) as (Hse & Hc & Hlt).
  set (pe := path_end u) in *. set (ps := path_start u) in *.
  assert (nlen (nfirstn pe (ser u)) = pe) as Lpe by (apply nlen_nfirstn; exact B6).
  (* cannot_be_a_base of the truncated record *)
  assert (cannot_be_a_base (set_ser u (nfirstn pe (ser u))) = Some false) as Ecbb.
  { unfold cannot_be_a_base, u_slice_from. cbn [ser set_ser scheme_end]. rewrite slice_from_o_some by lia. cbn [bindo].
    pose proof Hsl as C1. apply byte_eqb_nnth in C1.
    assert (nnth (nfirstn pe (ser u)) (scheme_end u + 1) = Some 47) as C1'.
    { destruct (N.lt_ge_cases (scheme_end u + 1) pe) as [Hlt1|Hge1].
      - rewrite nnth_nfirstn by lia. exact C1.
      - (* the path is empty: the byte at scheme_end + 1 would be '?' / '#' *)
        exfalso. assert (pe = scheme_end u + 1) as Epe by lia.
        pose proof (wf_qf_facts u W) as QF. pose proof (qf_q QF) as Q1. pose proof (qf_f QF) as Q2.
        pose proof (nnth_lt _ _ _ C1). unfold pe, path_end in Epe.
        destruct (query_start u) as [q|].
        + destruct Q1 as (_ & Qb & _). apply byte_eqb_nnth in Qb. rewrite Epe in Qb. congruence.
        + destruct (fragment_start u) as [f|]; [|lia].
          destruct Q2 as (_ & Qb & _). apply byte_eqb_nnth in Qb. rewrite Epe in Qb. congruence. }
    rewrite (nskipn_cons_of_nnth _ _ _ C1'). reflexivity. }
  rewrite Ecbb in H. cbn [bindo] in H.
  assert (u_scheme_type (set_ser u (nfirstn pe (ser u))) = Some (scheme_type_of (nfirstn (scheme_end u) (ser u)))) as Est.
  { unfold u_scheme_type, scheme, u_slice_to. cbn [ser set_ser scheme_end]. rewrite slice_to_o_some by lia. cbn [bindo].
    rewrite nfirstn_nfirstn by lia. reflexivity. }
  rewrite Est in H. cbn [bindo] in H.
  cbn [ser set_ser path_start] in H. unfold truncate in H. fold ps in H.
  rewrite nfirstn_nfirstn in H by lia.
  set (st := scheme_type_of (nfirstn (scheme_end u) (ser u))) in *.
  set (s0 := nfirstn ps (ser u)) in *.
  assert (nlen s0 = ps) as Ls0 by (apply nlen_nfirstn; lia).
  destruct (parse_path_start dbg CSetter st true s0 p) as [[[s1 hh] rem]| |] eqn:Epp; cbn [unpres bindo] in H; try discriminate.
  destruct (parse_path_start_setter dbg st s0 ps Ls0 p s1 hh rem Epp Hp Hx) as (P & Es1 & HP1 & HP2).
  (* restore_after_path *)
  unfold restore_after_path in H. cbn [ser set_ser query_start fragment_start] in H. rewrite Lpe in H.
  assert (match query_start u with Some i => pe <= i | None => True end) as Gq.
  { unfold pe, path_end. destruct (query_start u); [lia | exact I]. }
  assert (match fragment_start u with Some i => pe <= i | None => True end) as Gf.
  { pose proof (qf_qf (wf_qf_facts u W)) as Q3. unfold pe, path_end.
    destruct (query_start u), (fragment_start u); try exact I; lia. }
  rewrite !adjust_opt_ok in H by assumption. cbn [bindo] in H.
  exists P, hh, rem. split; [|split; [split; assumption|rewrite <- Es1; reflexivity]].
  inversion H. unfold with_path. fold pe ps. rewrite Es1. rewrite nlen_app, Ls0. rewrite <- app_assoc. reflexivity.
Qed.

Theorem set_path_ok dbg u p u' : wf_b u = true -> host_text_ok u -> has_authority_b u = true ->
  usv_list p -> auth_end_ok u -> set_path dbg u p = Some u' ->
  wf_b u' = true /\ host_text_ok u' /\ same_front dbg u u'
  /\ query dbg u' = query dbg u /\ fragment dbg u' = fragment dbg u
  /\ exists P, path u' = Some P /\ new_path_ok P
     /\ exists hh rem, parse_path_start dbg CSetter (scheme_type_of (nfirstn (scheme_end u) (ser u))) true
                         (nfirstn (path_start u) (ser u)) p
                       = POk (nfirstn (path_start u) (ser u) ++ P, hh, rem).
Proof.
  intros W HT Ha Hp Hx H.
  assert (byte_eqb (ser u) (scheme_end u + 1) 47 = true) as Hsl.
  { pose proof Ha as Ha2. unfold has_authority_b in Ha2. apply css_bytes in Ha2. destruct Ha2 as (_ & C1 & _).
    apply byte_eqb_true_iff. exact C1. }
  destruct (set_path_eval dbg u p u' W Hsl Hp Hx H) as (P & hh & rem & -> & (HP1 & HP2) & Epp).
  splits.
  - apply wp_wf; assumption.
  - apply wp_host_text_ok; assumption.
  - apply wp_front; assumption.
  - apply wp_query; assumption.
  - apply wp_fragment; assumption.
  - exists P. split; [apply wp_path; assumption|]. split; [split; assumption|].
    exists hh, rem. exact Epp.
Qed.

(* F-C02-8: set_path("//x") on an authority-less URL - outside the premise has_authority_b u = true *)
Definition sp_w1 : url := mkUrl [97; 58; 47; 112] 1 2 2 2 HI_None None 2 None None.
Lemma set_path_noauth_refuted :
  wf_b sp_w1 = true /\ has_authority_b sp_w1 = false
  /\ exists u', set_path true sp_w1 [47; 47; 120] = Some u' /\ ser u' = [97; 58; 47; 47; 120] /\ wf_b u' = false.
Proof. split; [vm_compute; reflexivity|]. split; [vm_compute; reflexivity|]. eexists. split; [vm_compute; reflexivity|]. split; vm_compute; reflexivity. Qed.

(* F-C02-3: set_path("?") on the opaque-path URL "a:b" writes the '?' unencoded: "a:?" with the '?'
   inside the path - outside wf_b (and outside has_authority_b u = true) *)
Definition sp_w2 : url := mkUrl [97; 58; 98] 1 2 2 2 HI_None None 2 None None.
Lemma set_path_opaque_refuted :
  wf_b sp_w2 = true /\ has_authority_b sp_w2 = false
  /\ exists u', set_path true sp_w2 [63] = Some u' /\ ser u' = [97; 58; 63] /\ query_start u' = None /\ wf_b u' = false.
Proof.
  split; [vm_compute; reflexivity|]. split; [vm_compute; reflexivity|]. eexists. split; [vm_compute; reflexivity|].
  split; [|split]; vm_compute; reflexivity.
Qed.
