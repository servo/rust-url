(* Proofs/C06_SegPush.v - what PathSegmentsMut::push / extend write, exactly.
   extend() skips a segment when its TAB/LF/CR-free text - the text parse_path will see, its input
   iterator drops TAB / LF / CR - is "." or ".." (Setters.psm_skips).  Before rust-url commit 9cd6187 the test was made
   on the raw argument: ".<TAB>." was not skipped, was read as ".." by parse_path and POPPED the last
   segment (F-C06-7).  EVERY segment that is not skipped is appended verbatim: '/' (unless the path is
   exactly "/") followed by the percent-encoding of the TAB/LF/CR-free text with the PATH_SEGMENT set of
   the scheme; '%' is in that set, so no "%2e" spelling can come out as a dot segment.
   Scheme types other than file (file adds drive-letter rewriting); file with a path longer than "/" below. *)
From RU Require Import Base.Prelude Base.Utf8 Base.Utf8Facts Model.AsciiSet Gen.Tables Model.PercentEncoding
  Model.HostT Model.UrlRecord Model.Parser Model.Setters Model.WF
  Proofs.C14_Set Proofs.C14_Enc Proofs.C14_Views Proofs.C20_Plain
  Proofs.ListN Proofs.C03_WF Proofs.C06_List Proofs.C06_WFI Proofs.C06_Tail Proofs.C06_Steps Proofs.C06_FragQuery
  Proofs.C06_Suffix Proofs.C06_Front Proofs.C06_PathParser Proofs.C06_Path Proofs.C06_Segments.

Definition strip_tnl (s : list N) : list N := filter not_tnl s.
(* a text that is "." or ".."; the test of extend() is this test on the TAB/LF/CR-free segment *)
Definition seg_skipped (s : list N) : bool := list_eqb s [46] || list_eqb s [46; 46].
Lemma psm_skips_strip seg : psm_skips seg = seg_skipped (strip_tnl seg).
Proof. reflexivity. Qed.

Definition seg_set (st : scheme_type) : aset := path_set CPathSegmentSetter st.
(* the text push writes for a segment *)
Definition seg_text (st : scheme_type) (s : list N) : list N := encode (seg_set st) (utf8_encode (strip_tnl s)).

Lemma seg_set_facts st :
  should_encode (seg_set st) 37 = true /\ should_encode (seg_set st) 46 = false /\ should_encode (seg_set st) 47 = true.
Proof. unfold seg_set, path_set. cbn [ctx_eqb]. destruct (st_is_special st); vm_compute; repeat split; reflexivity. Qed.

Lemma strip_tnl_usv s : usv_list s -> usv_list (strip_tnl s).
Proof.
  unfold usv_list, strip_tnl. rewrite !Forall_forall. intros H x Hx. apply H. apply filter_In in Hx. tauto.
Qed.

Lemma strip_tnl_app a b : strip_tnl (a ++ b) = strip_tnl a ++ strip_tnl b.
Proof. apply filter_app. Qed.

(* inversion of the per-byte encoder *)
Section EncInv.
Variable S : aset.
Hypothesis H37 : should_encode S 37 = true.
Hypothesis H46 : should_encode S 46 = false.

Lemma encode_nil_inv bs : encode S bs = [] -> bs = [].
Proof.
  destruct bs as [|b r]; [reflexivity|]. rewrite encode_cons. unfold enc1, enc_byte_spec.
  destruct (should_encode S b); discriminate.
Qed.

Lemma encode_46_inv bs rest : encode S bs = 46 :: rest -> exists r, bs = 46 :: r /\ encode S r = rest.
Proof.
  destruct bs as [|b r]; [discriminate|]. rewrite encode_cons. unfold enc1, enc_byte_spec.
  destruct (should_encode S b); cbn [app]; intros H; inversion H. exists r. split; reflexivity.
Qed.

Lemma encode_37_inv bs x y rest : encode S bs = 37 :: x :: y :: rest ->
  exists b r, bs = b :: r /\ should_encode S b = true /\ x = hex_upper (b / 16) /\ y = hex_upper (b mod 16)
              /\ encode S r = rest.
Proof.
  destruct bs as [|b r]; [discriminate|]. rewrite encode_cons. unfold enc1, enc_byte_spec.
  destruct (should_encode S b) eqn:E; cbn [app]; intros H; inversion H.
  - exists b, r. repeat split; try reflexivity. exact E.
  - subst b. congruence.
Qed.

Lemma hex2e_sweep : all_below 256 (fun b =>
  negb ((hex_upper (b / 16) =? 50) && ((hex_upper (b mod 16) =? 69) || (hex_upper (b mod 16) =? 101))) || (b =? 46)) = true.
Proof. vm_compute. reflexivity. Qed.

Lemma hex2e b e : b < 256 -> hex_upper (b / 16) = 50 -> hex_upper (b mod 16) = e -> (e = 69 \/ e = 101) -> b = 46.
Proof.
  intros Hb H1 H2 He. pose proof (all_below_spec 256 _ hex2e_sweep b Hb) as Hs. cbv beta in Hs.
  rewrite H1, H2 in Hs. destruct He; subst e; cbn in Hs; lia.
Qed.

(* an escape "%2e" / "%2E" never comes out of the encoder: '.' is not in the set, '%' is *)
Lemma encode_no_pct2e bs e rest : bytes bs -> (e = 69 \/ e = 101) -> encode S bs = 37 :: 50 :: e :: rest -> False.
Proof.
  intros Hb He H. destruct (encode_37_inv _ _ _ _ H) as (b & r & -> & Eb & E1 & E2 & _).
  inversion Hb as [|? ? Hb1 _]; subst. unfold is_byte in Hb1.
  assert (b = 46) as -> by (eapply hex2e; eauto). congruence.
Qed.

Lemma encode_single_dot bs : bytes bs -> is_single_dot (encode S bs) = true -> bs = [46].
Proof.
  intros Hb H. apply is_single_dot_inv2 in H. destruct H as [H|(e & He & H)].
  - apply encode_46_inv in H. destruct H as (r & -> & Hr). apply encode_nil_inv in Hr. subst r. reflexivity.
  - exfalso. eapply encode_no_pct2e; eassumption.
Qed.

Lemma encode_double_dot bs : bytes bs -> is_double_dot (encode S bs) = true -> bs = [46; 46].
Proof.
  intros Hb H. apply is_double_dot_inv2 in H. destruct H as [H|(e & rest & He & [H|H])].
  - apply encode_46_inv in H. destruct H as (r & -> & Hr). apply encode_46_inv in Hr. destruct Hr as (r2 & -> & Hr2).
    apply encode_nil_inv in Hr2. subst r2. reflexivity.
  - exfalso. eapply encode_no_pct2e; eassumption.
  - exfalso. apply encode_46_inv in H. destruct H as (r & -> & Hr). inversion Hb; subst.
    eapply (encode_no_pct2e r); eassumption.
Qed.
End EncInv.

(* UTF-8 encoding is injective on scalar values *)
Lemma utf8_encode_inj a b : usv_list a -> usv_list b -> utf8_encode a = utf8_encode b -> a = b.
Proof. intros Ha Hb H. rewrite <- (utf8_lossy_encode a Ha), <- (utf8_lossy_encode b Hb). rewrite H. reflexivity. Qed.

Lemma seg_text_not_dots st seg : usv_list seg -> seg_skipped (strip_tnl seg) = false ->
  is_double_dot (seg_text st seg) = false /\ is_single_dot (seg_text st seg) = false.
Proof.
  intros Hu Hk. destruct (seg_set_facts st) as (F37 & F46 & _). pose proof (strip_tnl_usv seg Hu) as Hs.
  pose proof (utf8_encode_bytes _ Hs) as Hb. unfold seg_text, seg_skipped in *.
  apply orb_false_iff in Hk. destruct Hk as [K1 K2]. split.
  - destruct (is_double_dot _) eqn:E; [|reflexivity]. exfalso.
    apply (encode_double_dot _ F37 F46 _ Hb) in E.
    assert (strip_tnl seg = [46; 46]) as E2.
    { apply utf8_encode_inj; [exact Hs | repeat constructor; unfold is_usv; lia | rewrite E; reflexivity]. }
    rewrite E2 in K2. discriminate.
  - destruct (is_single_dot _) eqn:E; [|reflexivity]. exfalso.
    apply (encode_single_dot _ F37 F46 _ Hb) in E.
    assert (strip_tnl seg = [46]) as E2.
    { apply utf8_encode_inj; [exact Hs | repeat constructor; unfold is_usv; lia | rewrite E; reflexivity]. }
    rewrite E2 in K1. discriminate.
Qed.

(* parse_path in the PathSegmentSetter context, scheme type other than file *)
Lemma push_pending_enc st ser pend : usv_list (rev pend) ->
  push_pending CPathSegmentSetter st ser pend = ser ++ encode (seg_set st) (utf8_encode (rev pend)).
Proof.
  intros H. unfold push_pending. destruct pend as [|c p].
  - cbn. rewrite app_nil_r. reflexivity.
  - unfold push_encoded. fold (seg_set st). rewrite pe_display_is_encode by (apply utf8_encode_bytes; exact H). reflexivity.
Qed.

Lemma ppl_seg dbg st ps : st_is_file st = false -> forall l ser ss pend hh, usv_list (rev pend ++ l) ->
  parse_path_loop dbg CPathSegmentSetter st ps l ser ss pend hh
  = (' (s2, hh') <~ finish_segment dbg st ps (ser ++ encode (seg_set st) (utf8_encode (rev pend ++ strip_tnl l))) ss false hh ;;
     POk (s2, hh', [])).
Proof.
  intros Hf. induction l as [|c r IH]; intros ser ss pend hh Hu.
  - cbn [parse_path_loop strip_tnl filter]. rewrite app_nil_r in *. rewrite push_pending_enc by exact Hu.
    destruct (finish_segment dbg st ps _ ss false hh) as [[s2 hh']| |]; cbn [pbind]; try reflexivity.
    unfold file_path_fixup. rewrite Hf. reflexivity.
  - apply usv_list_app in Hu. destruct Hu as [Hu1 Hu2]. inversion Hu2 as [|? ? Hc Hr]; subst.
    cbn [parse_path_loop]. unfold strip_tnl. cbn [filter]. fold (strip_tnl r). unfold not_tnl at 1.
    destruct (is_tnl c) eqn:Et; cbn [negb].
    + rewrite (IH _ ss [] hh) by exact Hr. cbn [rev app]. rewrite push_pending_enc by exact Hu1.
      rewrite <- app_assoc. rewrite <- encode_app, <- utf8_encode_app. reflexivity.
    + cbn [ctx_eqb negb andb]. rewrite andb_false_r. rewrite Hf. cbn [andb].
      rewrite (IH ser ss (c :: pend) hh).
      * cbn [rev]. rewrite <- app_assoc. reflexivity.
      * cbn [rev]. rewrite <- app_assoc. apply usv_list_app. split; [exact Hu1 | constructor; assumption].
Qed.

Lemma finish_plain dbg st ps ser E hh : st_is_file st = false -> is_double_dot E = false -> is_single_dot E = false ->
  finish_segment dbg st ps (ser ++ E) (nlen ser) false hh = POk (ser ++ E, hh).
Proof.
  intros Hf Hd Hs. unfold finish_segment.
  rewrite slice_o_some by (rewrite nlen_app; lia). cbn [of_option pbind].
  rewrite nskipn_app_exact. rewrite nfirstn_all by (rewrite nlen_app; lia).
  rewrite Hd, Hs, Hf. reflexivity.
Qed.

(* one segment outside the class: appended verbatim *)
Theorem parse_path_segment_exact dbg st ps x seg : st_is_file st = false -> usv_list seg ->
  seg_skipped (strip_tnl seg) = false ->
  parse_path dbg CPathSegmentSetter st true ps x seg = POk (x ++ seg_text st seg, true, []).
Proof.
  intros Hf Hu Hk. unfold parse_path. rewrite (ppl_seg dbg st ps Hf seg x (nlen x) [] true) by exact Hu.
  cbn [rev app]. fold (seg_text st seg). destruct (seg_text_not_dots st seg Hu Hk) as [Hd Hs].
  rewrite (finish_plain dbg st ps x _ true Hf Hd Hs). reflexivity.
Qed.

(* the editor operations on the path text *)
Definition push_text (st : scheme_type) (P seg : list N) : list N :=
  if seg_skipped (strip_tnl seg) then P
  else (if (1 <? nlen P) || (nlen P =? 0) then P ++ [47] else P) ++ seg_text st seg.
Definition extend_text (st : scheme_type) (P : list N) (segs : list (list N)) : list N := fold_left (push_text st) segs P.
Definition clear_text (P : list N) : list N := nfirstn 1 P.
Definition pop_if_empty_text (P : list N) : list N :=
  if nlen P <=? 1 then P else if ends_with_byte 47 (nskipn 1 P) then nfirstn (nlen P - 1) P else P.
Definition pop_text (P : list N) : list N :=
  if nlen P <=? 1 then P
  else nfirstn (1 + match rfind 47 (nskipn 1 P) with Some i => i | None => 0 end) P.
Definition op_text (st : scheme_type) (P : list N) (o : psm_op) : list N :=
  match o with
  | PClear => clear_text P
  | PPopIfEmpty => pop_if_empty_text P
  | PPop => pop_text P
  | PPush s => push_text st P s
  | PExtend ss => extend_text st P ss
  end.
Definition session_text (st : scheme_type) (P : list N) (ops : list psm_op) : list N := fold_left (op_text st) ops P.

Section ExtendLoop.
Variables (dbg : bool) (st : scheme_type) (s0 : list N) (ps : N).
Hypothesis Hps : nlen s0 = ps.
Hypothesis Hf : st_is_file st = false.

Lemma extend_loop_exact segs : forall P, Forall usv_list segs ->
  psm_extend_loop dbg st ps (s0 ++ P) segs = Some (s0 ++ extend_text st P segs).
Proof.
  induction segs as [|seg rest IH]; intros P Hu; cbn [psm_extend_loop extend_text fold_left]; [reflexivity|].
  pose proof (Forall_inv Hu) as Hu1. pose proof (Forall_inv_tail Hu) as Hu2.
  unfold push_text at 2. rewrite psm_skips_strip. destruct (seg_skipped (strip_tnl seg)) eqn:Hk1.
  - apply IH; assumption.
  - replace ((ps + 1 <? nlen (s0 ++ P)) || (nlen (s0 ++ P) =? ps)) with ((1 <? nlen P) || (nlen P =? 0))
      by (rewrite nlen_app, Hps; lia).
    replace (if (1 <? nlen P) || (nlen P =? 0) then (s0 ++ P) ++ [47] else s0 ++ P)
      with (s0 ++ (if (1 <? nlen P) || (nlen P =? 0) then P ++ [47] else P))
      by (destruct ((1 <? nlen P) || (nlen P =? 0)); [rewrite app_assoc|]; reflexivity).
    rewrite (parse_path_segment_exact dbg st ps _ seg Hf Hu1 Hk1). cbn [unpres bindo].
    rewrite <- app_assoc. apply IH; assumption.
Qed.

Lemma set_ser_set_ser (v : url) a b : set_ser (set_ser v a) b = set_ser v b.
Proof. reflexivity. Qed.

End ExtendLoop.

(* One walk through a session serves every scheme type.  It is given an invariant Inv of the path text that the
   operations keep, and a side condition ok on the segments of a push / extend under which psm_extend_loop appends
   exactly extend_text: nothing to ask for outside the file scheme (extend_loop_exact); for file URLs see C06_SegFile. *)
Section Exact.
Variables (dbg : bool) (st : scheme_type) (s0 : list N) (ps : N).
Hypothesis Hps : nlen s0 = ps.
Variable Inv : list N -> Prop.
Variable ok : list N -> list (list N) -> Prop.
Hypothesis Hext : forall P segs, Inv P -> Forall usv_list segs -> ok P segs ->
  psm_extend_loop dbg st ps (s0 ++ P) segs = Some (s0 ++ extend_text st P segs).
Hypothesis Hinv : forall P o, Inv P -> Inv (op_text st P o).

Definition op_ok_for (P : list N) (o : psm_op) : Prop :=
  match o with PPush s => ok P [s] | PExtend ss => ok P ss | _ => True end.
Fixpoint session_ok_for (P : list N) (ops : list psm_op) : Prop :=
  match ops with [] => True | o :: r => op_ok_for P o /\ session_ok_for (op_text st P o) r end.

Variables (u : url) (ap : list N) (op : N).
Hypothesis Hpsu : path_start u = ps.
Hypothesis Hst : forall P, u_scheme_type (set_ser u (s0 ++ P)) = Some st.

Definition psm_at (P : list N) : psm := mkPsm (set_ser u (s0 ++ P)) (ps + 1) ap op.

Lemma psm_with_at P x : psm_with (psm_at P) (s0 ++ x) = psm_at x.
Proof. reflexivity. Qed.

Lemma apply_exact o P : Inv P -> psm_op_usv o -> op_ok_for P o ->
  psm_apply dbg (psm_at P) o = Some (psm_at (op_text st P o)).
Proof.
  intros HP Hu Hok. destruct o as [| | |seg|segs]; cbn [psm_apply op_text].
  - f_equal. unfold psm_clear. cbn [psm_at psm_url ser set_ser after_first_slash]. unfold truncate.
    rewrite nfirstn_app_ge by lia. replace (ps + 1 - nlen s0) with 1 by lia. apply psm_with_at.
  - f_equal. unfold psm_pop_if_empty, pop_if_empty_text. cbn [psm_at psm_url ser set_ser after_first_slash].
    replace (nlen (s0 ++ P) <=? ps + 1) with (nlen P <=? 1) by (rewrite nlen_app; lia).
    destruct (nlen P <=? 1) eqn:E1; [reflexivity|].
    rewrite nskipn_app_ge by lia. replace (ps + 1 - nlen s0) with 1 by lia.
    destruct (ends_with_byte 47 (nskipn 1 P)); [|reflexivity].
    rewrite nfirstn_app_ge by (rewrite nlen_app; lia). replace (nlen (s0 ++ P) - 1 - nlen s0) with (nlen P - 1) by (rewrite nlen_app; lia).
    apply psm_with_at.
  - f_equal. unfold psm_pop, pop_text. cbn [psm_at psm_url ser set_ser after_first_slash].
    replace (nlen (s0 ++ P) <=? ps + 1) with (nlen P <=? 1) by (rewrite nlen_app; lia).
    destruct (nlen P <=? 1) eqn:E1; [reflexivity|].
    rewrite nskipn_app_ge by lia. replace (ps + 1 - nlen s0) with 1 by lia. unfold truncate.
    set (k := match rfind 47 (nskipn 1 P) with Some i => i | None => 0 end).
    rewrite nfirstn_app_ge by lia. replace (ps + 1 + k - nlen s0) with (1 + k) by lia. apply psm_with_at.
  - unfold psm_push, psm_extend. cbn [psm_at psm_url]. rewrite Hst. cbn [bindo path_start set_ser ser]. rewrite Hpsu.
    rewrite (Hext P [seg] HP (Forall_cons seg (Hu : usv_list seg) (Forall_nil _)) Hok). cbn [bindo]. reflexivity.
  - unfold psm_extend. cbn [psm_at psm_url]. rewrite Hst. cbn [bindo path_start set_ser ser]. rewrite Hpsu.
    rewrite Hext by assumption. cbn [bindo]. reflexivity.
Qed.

Lemma run_exact ops : forall P, Inv P -> Forall psm_op_usv ops -> session_ok_for P ops ->
  psm_run dbg (psm_at P) ops = Some (psm_at (session_text st P ops)).
Proof.
  induction ops as [|o rest IH]; intros P HP Hu Hok; cbn [psm_run session_text fold_left]; [reflexivity|]. destruct Hok as [Hok1 Hok2].
  rewrite apply_exact by (try assumption; eapply Forall_inv; eassumption). cbn [bindo].
  apply IH; [apply Hinv; exact HP | eapply Forall_inv_tail; eassumption | exact Hok2].
Qed.
End Exact.

Definition path_bytes (u : url) : list N := nfirstn (path_end u - path_start u) (nskipn (path_start u) (ser u)).
Definition st_of (u : url) : scheme_type := scheme_type_of (nfirstn (scheme_end u) (ser u)).

Theorem session_exact dbg u ops u' (Inv : list N -> Prop) (ok : list N -> list (list N) -> Prop) : wf_b u = true ->
  byte_eqb (ser u) (scheme_end u + 1) 47 = true ->
  (forall P segs, Inv P -> Forall usv_list segs -> ok P segs ->
     psm_extend_loop dbg (st_of u) (path_start u) (nfirstn (path_start u) (ser u) ++ P) segs
     = Some (nfirstn (path_start u) (ser u) ++ extend_text (st_of u) P segs)) ->
  (forall P o, Inv P -> Inv (op_text (st_of u) P o)) ->
  Inv (path_bytes u) -> session_ok_for (st_of u) ok (path_bytes u) ops ->
  Forall psm_op_usv ops -> path_segments_session dbg u ops = Some (u', SOk) ->
  u' = with_path u (session_text (st_of u) (path_bytes u) ops).
Proof.
  intros W Hsl Hext Hinv HP0 Hsok Hops H.
  destruct (wf_ps_le_path_end u W) as [B5 B6]. pose proof (wf_se_lt_ps u W) as B0.
  destruct (wf_scheme_facts u W) as (Hse & Hc & Hlt).
  set (pe := path_end u) in *. set (ps := path_start u) in *. set (st := st_of u) in *.
  set (s0 := nfirstn ps (ser u)) in *.
  assert (nlen s0 = ps) as Ls0 by (apply nlen_nfirstn; lia).
  set (x0 := nfirstn pe (ser u)).
  assert (nlen x0 = pe) as Lx0 by (apply nlen_nfirstn; exact B6).
  assert (x0 = s0 ++ path_bytes u) as Ex0.
  { unfold x0, s0, path_bytes. fold ps pe. rewrite <- (nskipn_0 (ser u)) at 1 2.
    replace (nfirstn pe (nskipn 0 (ser u))) with (nfirstn (pe - 0) (nskipn 0 (ser u))) by (f_equal; lia).
    replace (nfirstn ps (nskipn 0 (ser u))) with (nfirstn (ps - 0) (nskipn 0 (ser u))) by (f_equal; lia).
    symmetry. apply piece_app; lia. }
  assert (forall P, u_scheme_type (set_ser u (s0 ++ P)) = Some st) as Hst.
  { intros P. unfold u_scheme_type, scheme, u_slice_to. cbn [ser set_ser scheme_end].
    rewrite slice_to_o_some by (rewrite nlen_app; lia). cbn [bindo].
    rewrite nfirstn_app_le by lia. unfold s0. rewrite nfirstn_nfirstn by lia. reflexivity. }
  unfold path_segments_session, path_segments_mut in H.
  rewrite (cannot_be_a_base_eval u W) in H. cbn [bindo] in H.
  rewrite Hsl in H. cbn [negb] in H.
  unfold psm_new in H. rewrite (take_after_path_eval u W) in H. cbn [bindo] in H. fold pe x0 in H.
  rewrite Ex0 in H. rewrite Hst in H. cbn [bindo] in H.
  match type of H with bindo (bindo (bindo ?c _) _) _ = _ => destruct c as [[]|]; cbn [bindo] in H; [|discriminate] end.
  cbn [ser set_ser path_start] in H. fold ps in H.
  replace (nlen (s0 ++ path_bytes u)) with pe in H by (rewrite <- Ex0; symmetry; exact Lx0).
  change (mkPsm (set_ser u (s0 ++ path_bytes u)) (ps + 1) (nskipn pe (ser u)) pe)
    with (psm_at s0 ps u (nskipn pe (ser u)) pe (path_bytes u)) in H.
  rewrite (run_exact dbg st s0 ps Ls0 Inv ok Hext Hinv u (nskipn pe (ser u)) pe eq_refl Hst ops (path_bytes u) HP0 Hops Hsok) in H.
  cbn [bindo] in H.
  set (P := session_text st (path_bytes u) ops) in *.
  unfold psm_close, psm_at in H. cbn [psm_url psm_old_pos psm_after_path] in H.
  unfold restore_after_path in H. cbn [ser set_ser query_start fragment_start] in H.
  destruct (path_end_le_qf u W) as [Gq Gf].
  rewrite !adjust_opt_ok in H by assumption. cbn [bindo] in H.
  inversion H. unfold with_path. fold pe ps s0. rewrite nlen_app, Ls0. rewrite <- app_assoc. reflexivity.
Qed.

Lemma session_ok_for_True st ops : forall P, session_ok_for st (fun _ _ => True) P ops.
Proof. induction ops as [|o r IH]; intros P; cbn [session_ok_for]; [exact I|]. split; [destruct o; exact I | apply IH]. Qed.

Theorem path_segments_session_exact dbg u ops u' : wf_b u = true ->
  byte_eqb (ser u) (scheme_end u + 1) 47 = true -> st_is_file (st_of u) = false ->
  Forall psm_op_usv ops -> path_segments_session dbg u ops = Some (u', SOk) ->
  u' = with_path u (session_text (st_of u) (path_bytes u) ops).
Proof.
  intros W Hsl Hnf Hops H. pose proof (wf_se_lt_ps u W). pose proof (path_start_le_len u W).
  apply (session_exact dbg u ops u' (fun _ => True) (fun _ _ => True)); try assumption; try exact I.
  - intros P segs _ Hu _. apply extend_loop_exact; [apply nlen_nfirstn; lia | exact Hnf | exact Hu].
  - intros. exact I.
  - apply session_ok_for_True.
Qed.

(* why the skip test must be made on the TAB/LF/CR-free text: parse_path does NOT append a segment
   whose TAB/LF/CR-free text is "." or ".." (this is what F-C06-7 is about) *)
Lemma nlen_nfirstn_le_len n l : nlen (nfirstn n l) <= nlen l.
Proof. unfold nlen, nfirstn. rewrite firstn_length. lia. Qed.

Lemma pop_path_len st ps s s' : pop_path st ps s = POk s' -> nlen s' <= nlen s.
Proof.
  unfold pop_path. destruct (ps <? nlen s); [|intros H; inversion H; lia].
  destruct (rfind 47 (nskipn ps s)) as [sp|]; [|discriminate].
  destruct (st_is_file st && is_normalized_wdl (nskipn (ps + sp + 1) s)); intros H; inversion H; [lia|].
  unfold truncate. apply nlen_nfirstn_le_len.
Qed.

Lemma shorten_path_len st ps s s' : shorten_path st ps s = POk s' -> nlen s' <= nlen s.
Proof.
  unfold shorten_path. destruct (nlen s =? ps); [intros H; inversion H; lia|].
  destruct (st_is_file st && is_normalized_wdl (nskipn ps s)); [intros H; inversion H; lia|]. apply pop_path_len.
Qed.

Lemma finish_double_dot_len dbg st ps x hh s' hh' :
  finish_segment dbg st ps (x ++ [46; 46]) (nlen x) false hh = POk (s', hh') -> nlen s' <= nlen x.
Proof.
  unfold finish_segment. rewrite slice_o_some by (rewrite nlen_app; lia). cbn [of_option pbind].
  rewrite nskipn_app_exact. rewrite nfirstn_all by (rewrite nlen_app; lia).
  change (is_double_dot [46; 46]) with true. cbv iota.
  match goal with |- pbind ?c _ = _ -> _ => destruct c as [[]| |]; cbn [pbind]; try discriminate end.
  unfold truncate. rewrite nfirstn_app_exact. cbn [andb].
  match goal with |- pbind (shorten_path st ps ?s2) _ = _ -> _ =>
    assert (nlen s2 <= nlen x) as L2
      by (destruct (ends_with_byte 47 x && last_slash_can_be_removed x ps); [apply nlen_nfirstn_le_len | lia]);
    destruct (shorten_path st ps s2) as [s3| |] eqn:Es; cbn [pbind]; try discriminate end.
  apply shorten_path_len in Es. intros H. inversion H; subst. lia.
Qed.

Lemma finish_single_dot dbg st ps x hh :
  finish_segment dbg st ps (x ++ [46]) (nlen x) false hh = POk (if ends_with_byte 47 x then x else x ++ [47], hh).
Proof.
  unfold finish_segment. rewrite slice_o_some by (rewrite nlen_app; lia). cbn [of_option pbind].
  rewrite nskipn_app_exact. rewrite nfirstn_all by (rewrite nlen_app; lia).
  change (is_double_dot [46]) with false. change (is_single_dot [46]) with true. cbv iota.
  unfold truncate. rewrite nfirstn_app_exact. reflexivity.
Qed.

Lemma seg_text_dot st seg : strip_tnl seg = [46] -> seg_text st seg = [46].
Proof.
  intros E. unfold seg_text. rewrite E. destruct (seg_set_facts st) as (_ & F46 & _).
  change (utf8_encode [46]) with [46]. rewrite encode_cons. unfold enc1. rewrite F46. reflexivity.
Qed.
Lemma seg_text_dotdot st seg : strip_tnl seg = [46; 46] -> seg_text st seg = [46; 46].
Proof.
  intros E. unfold seg_text. rewrite E. destruct (seg_set_facts st) as (_ & F46 & _).
  change (utf8_encode [46; 46]) with [46; 46]. rewrite !encode_cons. unfold enc1. rewrite F46. reflexivity.
Qed.

Theorem parse_path_segment_class dbg st ps x seg s' hh rem : st_is_file st = false -> usv_list seg ->
  seg_skipped (strip_tnl seg) = true ->
  parse_path dbg CPathSegmentSetter st true ps x seg = POk (s', hh, rem) -> s' <> x ++ seg_text st seg.
Proof.
  intros Hf Hu Hk H. unfold parse_path in H. rewrite (ppl_seg dbg st ps Hf seg x (nlen x) [] true) in H by exact Hu.
  cbn [rev app] in H. fold (seg_text st seg) in H.
  unfold seg_skipped in Hk. apply orb_true_iff in Hk. destruct Hk as [Hk|Hk]; apply list_eqb_spec in Hk.
  - rewrite (seg_text_dot st seg Hk) in *. rewrite finish_single_dot in H. cbn [pbind] in H. inversion H; subst.
    destruct (ends_with_byte 47 x); intros E.
    + apply (f_equal nlen) in E. rewrite nlen_app in E. cbn in E. lia.
    + apply app_inv_head in E. discriminate.
  - rewrite (seg_text_dotdot st seg Hk) in *.
    destruct (finish_segment dbg st ps (x ++ [46; 46]) (nlen x) false true) as [[s2 hh2]| |] eqn:Ef; cbn [pbind] in H; try discriminate.
    apply finish_double_dot_len in Ef. inversion H; subst. intros E.
    apply (f_equal nlen) in E. rewrite nlen_app in E. cbn in E. lia.
Qed.

(* push(seg), EVERY &str segment: push_text, exactly (no segment is in the class of F-C06-7) *)
Theorem push_exact dbg st s0 ps P seg s' : nlen s0 = ps -> st_is_file st = false -> usv_list seg ->
  psm_extend_loop dbg st ps (s0 ++ P) [seg] = Some s' -> s' = s0 ++ push_text st P seg.
Proof.
  intros Hps Hf Hu H. rewrite (extend_loop_exact dbg st s0 ps Hps Hf [seg] P) in H by (repeat constructor; assumption).
  inversion H. reflexivity.
Qed.

(* a segment is skipped - the path text is left alone - exactly when the parser would read it as a dot segment *)
Lemma push_text_skipped st P seg : seg_skipped (strip_tnl seg) = true -> push_text st P seg = P.
Proof. intros H. unfold push_text. rewrite H. reflexivity. Qed.

(* the old path is kept as a prefix by push / extend outside the class: no existing segment is touched *)
Lemma push_text_prefix st P seg : exists t, push_text st P seg = P ++ t.
Proof.
  unfold push_text. destruct (seg_skipped (strip_tnl seg)); [exists []; rewrite app_nil_r; reflexivity|].
  destruct ((1 <? nlen P) || (nlen P =? 0)); [rewrite <- app_assoc|]; eexists; reflexivity.
Qed.
Lemma extend_text_prefix st segs : forall P, exists t, extend_text st P segs = P ++ t.
Proof.
  induction segs as [|seg rest IH]; intros P; cbn [extend_text fold_left]; [exists []; rewrite app_nil_r; reflexivity|].
  destruct (push_text_prefix st P seg) as (t1 & ->). destruct (IH (P ++ t1)) as (t2 & E). unfold extend_text in E. rewrite E.
  rewrite <- app_assoc. eexists. reflexivity.
Qed.

(* http://h/a/b *)
Definition w7_url : url := mkUrl [104;116;116;112;58;47;47;104;47;97;47;98] 4 7 7 8 HI_Domain None 8 None None.

(* the witnesses of F-C06-7: push(".<TAB>.") and push(".<LF>") are skipped like push("..") and push(".")
   (before rust-url commit 9cd6187 the first POPPED the segment "b" and the second appended an empty segment);
   the "%2e" spellings are appended with the '%' escaped *)
Lemma c06_7_fixed_witness :
  wf_b w7_url = true /\ psm_skips [46; 9; 46] = true /\ psm_skips [46; 10] = true /\ psm_skips [13; 46; 9; 46; 10] = true
  /\ psm_skips [46; 46] = true /\ psm_skips [46] = true /\ psm_skips [37; 50; 101; 9; 46] = false
  /\ psm_skips [46; 9; 46; 46] = false /\ psm_skips [9] = false
  /\ (forall dbg, path_segments_session dbg w7_url [PPush [46; 9; 46]] = Some (w7_url, SOk))
  /\ (forall dbg, path_segments_session dbg w7_url [PPush [46; 46]] = Some (w7_url, SOk))
  /\ (forall dbg, path_segments_session dbg w7_url [PPush [46; 10]] = Some (w7_url, SOk))
  /\ (forall dbg, path_segments_session dbg w7_url [PPush [46]] = Some (w7_url, SOk))
  /\ (forall dbg, path_segments_session dbg w7_url [PExtend [[46; 9; 46]; [120]; [10; 46]]]
                  = Some (with_path w7_url [47;97;47;98;47;120], SOk))
  /\ (forall dbg, path_segments_session dbg w7_url [PPush [37; 50; 101; 9; 46]]
                  = Some (with_path w7_url [47;97;47;98;47;37;50;53;50;101;46], SOk))
  /\ push_text (st_of w7_url) (path_bytes w7_url) [46; 9; 46] = path_bytes w7_url
  /\ path w7_url = Some [47; 97; 47; 98].
Proof.
  (* [split] on an equation would try to close it by plain conversion; [apply conj] only takes the conjunction apart *)
  repeat apply conj; try (intros []); vm_compute; reflexivity.
Qed.

(* the hypotheses of path_segments_session_exact are met by a non-trivial session *)
Example session_exact_example :
  wf_b w7_url = true /\ byte_eqb (ser w7_url) (scheme_end w7_url + 1) 47 = true /\ st_is_file (st_of w7_url) = false
  /\ Forall psm_op_usv [PPush [120; 9; 121]; PExtend [[46; 46]; [99; 47; 37]; []]; PPop; PPush [233]]
  /\ path_segments_session true w7_url [PPush [120; 9; 121]; PExtend [[46; 46]; [99; 47; 37]; []]; PPop; PPush [233]]
     = Some (with_path w7_url [47;97;47;98;47;120;121;47;99;37;50;70;37;50;53;47;37;67;51;37;65;57], SOk)
  /\ session_text (st_of w7_url) (path_bytes w7_url) [PPush [120; 9; 121]; PExtend [[46; 46]; [99; 47; 37]; []]; PPop; PPush [233]]
     = [47;97;47;98;47;120;121;47;99;37;50;70;37;50;53;47;37;67;51;37;65;57].
Proof.
  split; [vm_compute; reflexivity|]. split; [vm_compute; reflexivity|]. split; [vm_compute; reflexivity|].
  split; [repeat constructor; unfold is_usv; lia|].
  split; vm_compute; reflexivity.
Qed.

Lemma path_text_is_path u : wf_b u = true -> path u = Some (path_bytes u).
Proof. intros W. rewrite (path_eval u W). reflexivity. Qed.

(* the file scheme, path longer than "/" *)
(* On a file URL parse_path also (1) inserts a '/' behind a normalized drive letter that is the whole path so far,
   (2) rewrites a drive-letter first segment "C|" to "C:", (3) collapses leading slashes of the path.  None of them
   can happen when the path before the push is longer than one byte and does not start with "//" (true of every parsed
   file URL): then push is exact for every segment.  On the root path "/" the drive-letter quirks
   apply (file:/// push("C|") gives file:///C:, push("C:<TAB>x") gives file:///C:/x): not covered. *)
Definition file_path_inv (P : list N) : Prop := exists c r, P = 47 :: c :: r /\ c <> 47.

Lemma nwdl_shape l : is_normalized_wdl l = true -> exists a, l = [a; 58].
Proof.
  unfold is_normalized_wdl, is_wdl. intros H. apply andb_true_iff in H. destruct H as [H1 H2].
  apply andb_true_iff in H1. destruct H1 as [H1 _]. destruct l as [|a [|b [|c r]]]; try discriminate H1.
  apply N.eqb_eq in H2. subst b. exists a. reflexivity.
Qed.

Lemma no_nwdl_behind s0 ps P chunk : nlen s0 = ps -> 1 < nlen P ->
  is_normalized_wdl (nskipn (ps + 1) ((s0 ++ P ++ [47]) ++ chunk)) = false.
Proof.
  intros Hps HP. destruct (is_normalized_wdl _) eqn:E; [|reflexivity]. exfalso.
  apply nwdl_shape in E. destruct E as [a E].
  rewrite <- !app_assoc in E. rewrite nskipn_app_ge in E by lia. replace (ps + 1 - nlen s0) with 1 in E by lia.
  rewrite nskipn_app_le in E by lia.
  destruct P as [|p0 [|p1 P']]; try (cbn in HP; lia).
  change (nskipn 1 (p0 :: p1 :: P')) with (p1 :: P') in E. cbn [app] in E.
  inversion E as [[E1 E2]]. destruct P' as [|p2 P'']; cbn [app] in E2.
  - inversion E2.
  - inversion E2 as [[E3 E4]]. destruct P''; cbn [app] in E4; discriminate E4.
Qed.

Lemma ppl_seg_file dbg ps l : forall ser ss pend hh, usv_list (rev pend ++ l) ->
  (forall chunk, is_normalized_wdl (nskipn (ps + 1) (ser ++ chunk)) = false) ->
  parse_path_loop dbg CPathSegmentSetter STFile ps l ser ss pend hh
  = (' (s2, hh') <~ finish_segment dbg STFile ps (ser ++ encode (seg_set STFile) (utf8_encode (rev pend ++ strip_tnl l))) ss false hh ;;
     POk (file_path_fixup STFile ps s2, hh', [])).
Proof.
  induction l as [|c r IH]; intros ser ss pend hh Hu Hn.
  - cbn [parse_path_loop strip_tnl filter]. rewrite app_nil_r in *. rewrite push_pending_enc by exact Hu. reflexivity.
  - apply usv_list_app in Hu. destruct Hu as [Hu1 Hu2]. inversion Hu2 as [|? ? Hc Hr]; subst.
    cbn [parse_path_loop]. unfold strip_tnl. cbn [filter]. fold (strip_tnl r). unfold not_tnl at 1.
    destruct (is_tnl c) eqn:Et; cbn [negb].
    + rewrite (IH _ ss [] hh) by (try exact Hr; intros chunk; rewrite push_pending_enc by exact Hu1; rewrite <- app_assoc; apply Hn).
      cbn [rev app]. rewrite push_pending_enc by exact Hu1.
      rewrite <- app_assoc. rewrite <- encode_app, <- utf8_encode_app. reflexivity.
    + cbn [ctx_eqb negb andb]. rewrite andb_false_r.
      pose proof (Hn []) as Hn0. rewrite app_nil_r in Hn0. rewrite Hn0. rewrite andb_false_r.
      rewrite (IH ser ss (c :: pend) hh).
      * cbn [rev]. rewrite <- app_assoc. reflexivity.
      * cbn [rev]. rewrite <- app_assoc. apply usv_list_app. split; [exact Hu1 | constructor; assumption].
      * exact Hn.
Qed.

Lemma fixup_id_file s0 ps c r : nlen s0 = ps -> c <> 47 -> file_path_fixup STFile ps (s0 ++ 47 :: c :: r) = s0 ++ 47 :: c :: r.
Proof.
  intros Hps Hc. unfold file_path_fixup. cbn [st_is_file]. rewrite <- Hps. rewrite nfirstn_app_exact, nskipn_app_exact.
  cbn [drop_while is_slash]. change (is_slash 47) with true. cbv iota. unfold is_slash.
  replace (c =? 47) with false by (symmetry; apply N.eqb_neq; exact Hc). reflexivity.
Qed.

Theorem parse_path_segment_exact_file dbg ps s0 P seg : nlen s0 = ps -> 1 < nlen P -> file_path_inv P ->
  usv_list seg -> seg_skipped (strip_tnl seg) = false ->
  parse_path dbg CPathSegmentSetter STFile true ps (s0 ++ P ++ [47]) seg
  = POk ((s0 ++ P ++ [47]) ++ seg_text STFile seg, true, []).
Proof.
  intros Hps HP (c & r & EP & Hc) Hu Hk. unfold parse_path.
  assert (forall chunk, is_normalized_wdl (nskipn (ps + 1) ((s0 ++ P ++ [47]) ++ chunk)) = false) as Hn
    by (intros chunk; apply no_nwdl_behind; assumption).
  set (x := s0 ++ P ++ [47]) in *.
  rewrite (ppl_seg_file dbg ps seg x (nlen x) [] true Hu Hn).
  cbn [rev app]. fold (seg_text STFile seg). destruct (seg_text_not_dots STFile seg Hu Hk) as [Hd Hs].
  assert (finish_segment dbg STFile ps (x ++ seg_text STFile seg) (nlen x) false true = POk (x ++ seg_text STFile seg, true)) as Ef.
  { unfold finish_segment. rewrite slice_o_some by (rewrite nlen_app; lia). cbn [of_option pbind].
    rewrite nskipn_app_exact. rewrite nfirstn_all by (rewrite nlen_app; lia). rewrite Hd, Hs.
    replace (nlen x =? ps + 1) with false; [rewrite andb_false_r; reflexivity|].
    symmetry. apply N.eqb_neq. unfold x. rewrite !nlen_app. change (nlen [47]) with 1. lia. }
  rewrite Ef. cbn [pbind]. unfold x. rewrite EP. rewrite <- !app_assoc. cbn [app]. rewrite (fixup_id_file s0 ps c _ Hps Hc). reflexivity.
Qed.

Lemma fixup_len st ps s : nlen (file_path_fixup st ps s) <= nlen s + 1.
Proof.
  unfold file_path_fixup. destruct (st_is_file st); [|lia]. rewrite !nlen_app. change (nlen [47]) with 1.
  assert (nlen (drop_while is_slash (nskipn ps s)) <= nlen (nskipn ps s)) as L.
  { generalize (nskipn ps s). intros l. induction l as [|d t IH]; [cbn; lia|]. cbn [drop_while].
    destruct (is_slash d); [rewrite nlen_cons; lia | lia]. }
  rewrite nlen_nskipn in L. pose proof (nlen_nfirstn_le ps s). pose proof (nlen_nfirstn_le_len ps s).
  destruct (N.le_gt_cases ps (nlen s)); [rewrite nlen_nfirstn by lia; lia | lia].
Qed.

(* on a file URL whose path is longer than "/" and not "//"-led: push_text, exactly, for every &str segment *)
Theorem push_exact_file dbg s0 ps P seg s' : nlen s0 = ps -> 1 < nlen P -> file_path_inv P -> usv_list seg ->
  psm_extend_loop dbg STFile ps (s0 ++ P) [seg] = Some s' -> s' = s0 ++ push_text STFile P seg.
Proof.
  intros Hps HP Hinv Hu H. cbn [psm_extend_loop] in H. rewrite psm_skips_strip in H.
  unfold push_text. destruct (seg_skipped (strip_tnl seg)) eqn:Ek.
  - inversion H; subst. reflexivity.
  - replace ((ps + 1 <? nlen (s0 ++ P)) || (nlen (s0 ++ P) =? ps)) with true in H
      by (rewrite nlen_app, Hps; symmetry; apply orb_true_iff; left; apply N.ltb_lt; lia).
    replace ((1 <? nlen P) || (nlen P =? 0)) with true by (symmetry; apply orb_true_iff; left; apply N.ltb_lt; lia).
    rewrite <- app_assoc in H.
    rewrite (parse_path_segment_exact_file dbg ps s0 P seg Hps HP Hinv Hu Ek) in H. cbn [unpres bindo] in H.
    injection H as H1. subst s'. rewrite <- !app_assoc. reflexivity.
Qed.
