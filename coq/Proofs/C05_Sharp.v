(* Proofs/C05_Sharp.v - U+0020 reaches the serialization only through the opaque-path state:
   a parse result is entirely inside 0x21..0x7E unless it has an opaque path (and then a non-special
   scheme, and nothing up to the ':' is a space). *)
From RU Require Import Base.Prelude Base.Utf8 Base.Utf8Facts Model.AsciiSet Gen.Tables Model.PercentEncoding
  Model.HostT Model.UrlRecord Model.Parser Proofs.ListN Proofs.C14_Set Proofs.C14_Enc Proofs.C14_Views
  Proofs.C06_FragQuery Proofs.C05_Enc Proofs.C05_Parser Proofs.C05_Tail.

Definition opaque_ok (u : url) : Prop :=
  Forall ok_or_space (ser u)
  /\ Forall ok_byte (nfirstn (scheme_end u + 1) (ser u))
  /\ cannot_be_a_base u = Some true
  /\ st_is_special (scheme_type_of (nfirstn (scheme_end u) (ser u))) = false.

Definition sharp (u : url) : Prop := Forall ok_byte (ser u) \/ opaque_ok u.

Lemma sharp_oks u : sharp u -> Forall ok_or_space (ser u).
Proof.
  intros [H|H]; [|apply H]. eapply Forall_impl; [|exact H]. exact ok_byte_or_space.
Qed.

(* first byte is '/' *)
Definition hd47 (t : list N) : bool := match t with x :: _ => x =? 47 | [] => false end.

Lemma starts_with_47 s : starts_with [47] s = hd47 s.
Proof. destruct s as [|x r]; [reflexivity|]. cbn [starts_with hd47]. rewrite andb_true_r. apply N.eqb_sym. Qed.

Lemma hd47_app a b : hd47 a = false -> hd47 b = false -> hd47 (a ++ b) = false.
Proof. destruct a; cbn [app hd47]; auto. Qed.

(* the functions only append *)
Lemma parse_fragment_loop_app l ser pr :
  exists t, parse_fragment_loop ser pr l = ser ++ t /\ Forall ok_byte t.
Proof.
  rewrite parse_fragment_loop_tnl.
  apply (tnl_loop_adds (Forall ok_byte) T_FRAGMENT); [constructor | intros a b Ha Hb; apply Forall_app; split; assumption|].
  intros xs. apply pe_display_ok, T_FRAGMENT_ctl.
Qed.

Lemma parse_query_loop_app set enc iup l ser pr :
  exists t, fst (parse_query_loop set enc iup ser pr l) = ser ++ t.
Proof.
  destruct (query_loop_adds (fun _ => True) set I (fun _ _ _ _ => I) (fun _ => I) enc iup l ser pr) as (t & E & _).
  exists t. exact E.
Qed.

Lemma parse_query_and_fragment_app ovr ctx st se ser l s qs fs :
  parse_query_and_fragment ovr ctx st se ser l = POk (s, qs, fs) ->
  exists t, s = ser ++ t /\ hd47 t = false.
Proof.
  unfold parse_query_and_fragment. intros H.
  destruct (inp_next l) as [[c r]|]; [|inversion H; subst; exists []; rewrite app_nil_r; split; reflexivity].
  destruct (c =? 35).
  { pb H f0 Hf0. inversion H; subst. unfold parse_fragment.
    destruct (parse_fragment_loop_app r (ser ++ [35]) []) as [t [Ht _]]. rewrite Ht, <- app_assoc.
    eexists; split; reflexivity. }
  destruct (c =? 63); [|discriminate]. pb H q0 Hq0.
  unfold parse_query in H.
  destruct (parse_query_loop_app (query_set st) (query_enc ovr (nfirstn se (ser ++ [63]))) (ctx_eqb ctx CUrlParser) r
              (ser ++ [63]) []) as [t Ht].
  destruct (parse_query_loop (query_set st) (query_enc ovr (nfirstn se (ser ++ [63]))) (ctx_eqb ctx CUrlParser)
              (ser ++ [63]) [] r) as [ser1 rem]. cbn [fst] in Ht. subst ser1.
  destruct rem as [r2|].
  - pb H f0 Hf0. inversion H; subst. unfold parse_fragment.
    destruct (parse_fragment_loop_app r2 (((ser ++ [63]) ++ t) ++ [35]) []) as [t2 [Ht2 _]].
    rewrite Ht2. exists ([63] ++ t ++ [35] ++ t2). split; [rewrite <- !app_assoc; reflexivity | reflexivity].
  - inversion H; subst. rewrite <- app_assoc. eexists; split; reflexivity.
Qed.

Lemma pcbb_app ctx l : forall ser, exists t, fst (parse_cannot_be_a_base_path ctx ser l) = ser ++ t.
Proof.
  induction l as [|c r IH]; intros ser; cbn [parse_cannot_be_a_base_path].
  - exists []. rewrite app_nil_r. reflexivity.
  - destruct (is_tnl c); [apply IH|].
    destruct (((c =? 63) || (c =? 35)) && ctx_eqb ctx CUrlParser); [exists []; rewrite app_nil_r; reflexivity|].
    destruct (IH (push_encoded T_CONTROLS ser [c])) as [t Ht]. rewrite Ht. unfold push_encoded.
    rewrite <- app_assoc. eexists; reflexivity.
Qed.

(* the escape of a scalar value other than '/' is not empty and does not begin with '/' *)
Lemma enc_first_not_slash S c : is_usv c -> c <> 47 ->
  exists x r, pe_display S (utf8_encode [c]) = x :: r /\ x <> 47.
Proof.
  intros Hu Hc. rewrite pe_display_is_encode by (apply utf8_encode_bytes; constructor; [exact Hu | constructor]).
  unfold utf8_encode. cbn [flat_map]. rewrite app_nil_r.
  assert (exists b0 rest, utf8_encode1 c = b0 :: rest /\ (b0 = c \/ 128 <= b0)) as (b0 & rest & E & Hb).
  { unfold utf8_encode1. destruct (c <? 128) eqn:E1; [do 2 eexists; split; [reflexivity | left; reflexivity]|].
    destruct (c <? 2048); [do 2 eexists; split; [reflexivity | right; lia]|].
    destruct (c <? 65536); do 2 eexists; (split; [reflexivity | right; lia]). }
  rewrite E, encode_cons. unfold enc1.
  destruct (should_encode S b0) eqn:Es.
  - unfold enc_byte_spec. cbn [app]. do 2 eexists. split; [reflexivity | lia].
  - cbn [app]. do 2 eexists. split; [reflexivity|].
    destruct Hb as [->|Hb]; [exact Hc|]. unfold should_encode in Es. replace (128 <=? b0) with true in Es by lia. discriminate.
Qed.

Lemma pcbb_head ctx l : forall ser, usv_list l -> hd47 (drop_while is_tnl l) = false ->
  exists t, fst (parse_cannot_be_a_base_path ctx ser l) = ser ++ t /\ hd47 t = false.
Proof.
  induction l as [|c r IH]; intros ser Hu Hh; cbn [parse_cannot_be_a_base_path].
  - exists []. rewrite app_nil_r. split; reflexivity.
  - inversion Hu as [|? ? Hc Hr]; subst. cbn [drop_while] in Hh.
    destruct (is_tnl c); [apply IH; assumption|]. cbn [hd47] in Hh.
    destruct (((c =? 63) || (c =? 35)) && ctx_eqb ctx CUrlParser); [exists []; rewrite app_nil_r; split; reflexivity|].
    destruct (pcbb_app ctx r (push_encoded T_CONTROLS ser [c])) as [t Ht]. rewrite Ht. unfold push_encoded.
    destruct (enc_first_not_slash T_CONTROLS c Hc ltac:(lia)) as (x & e & E & Hx). rewrite E.
    rewrite <- app_assoc. eexists. split; [reflexivity|]. cbn [app hd47]. lia.
Qed.

Lemma Forall_firstn_firstn {A} (Q : A -> Prop) n i : forall l, Forall Q (firstn n l) -> Forall Q (firstn n (firstn i l)).
Proof.
  revert i. induction n as [|n IH]; intros i l H; [constructor|].
  destruct i as [|i]; [cbn; constructor|]. destruct l as [|x l]; [constructor|].
  cbn [firstn] in *. inversion H; subst. constructor; [assumption | apply IH; assumption].
Qed.

Lemma Forall_firstn_app {A} (Q : A -> Prop) n : forall a t, Forall Q (firstn n a) -> Forall Q t -> Forall Q (firstn n (a ++ t)).
Proof.
  induction n as [|n IH]; intros a t Ha Ht; [constructor|].
  destruct a as [|x a]; [cbn [app]; apply Forall_firstn; exact Ht|].
  cbn [app firstn] in *. inversion Ha; subst. constructor; [assumption | apply IH; assumption].
Qed.

Lemma firstn_app_ge {A} n (a t : list A) : (n <= length a)%nat -> firstn n (a ++ t) = firstn n a.
Proof.
  intros H. rewrite firstn_app. replace (n - length a)%nat with 0%nat by lia. cbn [firstn]. apply app_nil_r.
Qed.

Lemma skipn_app_ge {A} n (a t : list A) : (n <= length a)%nat -> skipn n (a ++ t) = skipn n a ++ t.
Proof.
  intros H. rewrite skipn_app. replace (n - length a)%nat with 0%nat by lia. reflexivity.
Qed.

Lemma hd47_firstn k s : hd47 s = false -> hd47 (firstn k s) = false.
Proof. destruct k; [reflexivity|]. destruct s; [reflexivity|]. cbn [firstn hd47]. auto. Qed.

Lemma scheme_type_of_eqb a b : list_eqb a b = true -> scheme_type_of a = scheme_type_of b.
Proof. intros H. apply list_eqb_spec in H. subst. reflexivity. Qed.

Section Sharp.
Variable dbg : bool.
Variable host_parse host_parse_opaque : list N -> result host.
Variable host_display : host -> list N.
Variable ovr : option (list N -> list N).
Hypothesis HOK : HostOK host_parse host_parse_opaque host_display.

Notation PU := (parse_url dbg host_parse host_parse_opaque host_display ovr).
Notation PWS := (parse_with_scheme dbg host_parse host_parse_opaque host_display ovr).

(* a base with a non-special scheme is not looked at once a scheme has been parsed *)
Lemma parse_with_scheme_nonspecial_base b scheme l :
  st_is_special (scheme_type_of (b_scheme b)) = false ->
  PWS (Some b) scheme l = PWS None scheme l.
Proof.
  intros Hb. unfold parse_with_scheme. destruct (to_u32 (nlen scheme)); cbn [pbind]; try reflexivity.
  cbv zeta. destruct (scheme_type_of scheme) eqn:Est.
  - destruct (list_eqb (b_scheme b) s_file) eqn:E; [|reflexivity].
    apply scheme_type_of_eqb in E. rewrite E in Hb. discriminate.
  - destruct (inp_count_matching is_slash_or_bslash l) as [slashes remaining].
    destruct (list_eqb (b_scheme b) scheme) eqn:E.
    + apply scheme_type_of_eqb in E. rewrite E, Est in Hb. discriminate.
    + rewrite andb_false_r. reflexivity.
  - reflexivity.
Qed.

(* fragment-only reference against an opaque base *)
Lemma fragment_only_sharp b l u : opaque_ok b -> fragment_only b l = POk u -> sharp u.
Proof.
  intros (Hs & Hpre & Hcbb & Hsp) H.
  pose proof (fragment_only_okl ok_or_space ok_byte_or_space b l u H Hs) as Hall.
  pose proof (fragment_only_okl ok_byte (fun _ h => h) b l u H) as Hallok.
  unfold fragment_only in H. cbv zeta in H. pb H f0 Hf0. inversion H; subst. clear H.
  unfold parse_fragment in *.
  destruct (parse_fragment_loop_app (match inp_next l with Some (_, r) => r | None => [] end)
              (b_before_fragment b ++ [35]) []) as [t [Ht Htok]].
  cbn [ser] in Hall, Hallok. rewrite Ht in Hall. rewrite <- app_assoc in Hall.
  assert (Forall ok_byte ([35] ++ t)) as Htl.
  { apply Forall_app. split; [repeat constructor; unfold ok_byte; lia | exact Htok]. }
  unfold cannot_be_a_base, u_slice_from, slice_from_o in Hcbb.
  set (se := scheme_end b) in *.
  destruct (se + 1 <=? nlen (ser b)) eqn:Elen; [|cbn [bindo] in Hcbb; discriminate Hcbb]. cbn [bindo] in Hcbb.
  assert (hd47 (nskipn (se + 1) (ser b)) = false) as Hhd.
  { rewrite starts_with_47 in Hcbb. destruct (hd47 (nskipn (se + 1) (ser b))); [discriminate Hcbb | reflexivity]. }
  (* where the fragment of the base started *)
  unfold b_before_fragment in *.
  destruct (fragment_start b) as [i|] eqn:Ef.
  2:{ (* no fragment: the whole base is kept *)
      right. unfold opaque_ok. cbn [ser scheme_end]. fold se. rewrite Ht, <- app_assoc.
      split; [exact Hall|]. split; [|split].
      - unfold nfirstn. apply Forall_firstn_app; [exact Hpre | exact Htl].
      - unfold cannot_be_a_base, u_slice_from, slice_from_o. cbn [ser scheme_end]. fold se.
        rewrite nlen_app. replace (se + 1 <=? nlen (ser b) + nlen ([35] ++ t)) with true by lia. cbn [bindo].
        unfold nskipn. rewrite skipn_app_ge by (unfold nlen in Elen; lia).
        rewrite starts_with_47, hd47_app; [reflexivity | exact Hhd | reflexivity].
      - unfold nfirstn. rewrite firstn_app_ge by (unfold nlen in Elen; lia). exact Hsp. }
  destruct (N.leb_spec i se) as [Hi|Hi].
  { (* the kept prefix ends before the ':' : everything is in 0x21..0x7E *)
    left. cbn [ser]. rewrite Ht, <- app_assoc. apply Forall_app. split; [|exact Htl].
    unfold nfirstn in *. replace (N.to_nat i) with (Nat.min (N.to_nat i) (N.to_nat (se + 1))) by lia.
    rewrite <- firstn_firstn. apply Forall_firstn. exact Hpre. }
  right. unfold opaque_ok. cbn [ser scheme_end]. fold se. rewrite Ht, <- app_assoc.
  assert (N.to_nat (se + 1) <= length (nfirstn i (ser b)))%nat as Hl.
  { unfold nfirstn. rewrite firstn_length. unfold nlen in Elen. lia. }
  split; [exact Hall|]. split; [|split].
  - unfold nfirstn at 1. apply Forall_firstn_app; [|exact Htl].
    unfold nfirstn. apply Forall_firstn_firstn. exact Hpre.
  - unfold cannot_be_a_base, u_slice_from, slice_from_o. cbn [ser scheme_end]. fold se.
    rewrite nlen_app. unfold nlen at 1.
    replace (se + 1 <=? N.of_nat (length (nfirstn i (ser b))) + nlen ([35] ++ t)) with true by lia. cbn [bindo].
    unfold nskipn at 1. rewrite skipn_app_ge by exact Hl.
    rewrite starts_with_47, hd47_app; [reflexivity | | reflexivity].
    unfold nfirstn. rewrite skipn_firstn_comm. apply hd47_firstn. exact Hhd.
  - unfold nfirstn at 1. rewrite firstn_app_ge by lia.
    unfold nfirstn. rewrite firstn_firstn. replace (Nat.min (N.to_nat se) (N.to_nat i)) with (N.to_nat se) by lia.
    exact Hsp.
Qed.

Lemma to_u32_ok n m : to_u32 n = POk m -> m = n.
Proof. unfold to_u32. destruct (n <=? U32_MAX_P); intros H; [inversion H; reflexivity | discriminate]. Qed.

Lemma starts_ss_hd47 t : hd47 t = false -> starts_with s_ss t = false.
Proof.
  destruct t as [|x r]; [reflexivity|]. cbn [hd47]. intros H. unfold s_ss. cbn [starts_with].
  replace (47 =? x) with false by lia. reflexivity.
Qed.

(* the opaque-path branch of the non-special state *)
Lemma parse_non_special_opaque st se sr l u :
  usv_list l -> opaque_branch l = true ->
  nlen sr = se + 1 -> Forall ok_byte sr ->
  st_is_special (scheme_type_of (nfirstn se sr)) = false ->
  parse_non_special dbg host_parse host_parse_opaque host_display ovr CUrlParser st se sr l = POk u ->
  opaque_ok u.
Proof.
  intros Hu Hob Hlen Hsr Hsp H.
  assert (Forall ok_or_space (ser u)) as Hall.
  { eapply (parse_non_special_okl ok_or_space ok_byte_or_space); [exact HOK | intros _; exact ok_or_space_32 | exact H|].
    eapply Forall_impl; [|exact Hsr]. exact ok_byte_or_space. }
  unfold opaque_branch in Hob.
  destruct (parse_non_special_case dbg host_parse host_parse_opaque host_display ovr CUrlParser st se sr l u H)
    as [rm E _ | r s hh rem _ E _ _ | _ E47 Hw]; [rewrite E in Hob; discriminate | | ].
  { destruct (inp_split_prefix_str s_ss l); [discriminate | rewrite E in Hob; discriminate]. }
  assert (hd47 (drop_while is_tnl l) = false) as Hhd.
  { unfold inp_split_prefix_char, inp_next in E47. destruct (drop_while is_tnl l) as [|c r]; [reflexivity|].
    cbn [hd47]. destruct (c =? 47); [discriminate | reflexivity]. }
  destruct (pcbb_head CUrlParser l sr Hu Hhd) as (t1 & Ht1 & Hh1). rewrite Ht1 in Hw.
  assert (nskipn (nlen sr) (sr ++ t1) = t1) as Esk.
  { unfold nskipn. rewrite skipn_app_ge by (unfold nlen in *; lia).
    rewrite skipn_all2 by (unfold nlen in *; lia). reflexivity. }
  destruct (with_query_and_fragment_steps ovr _ _ _ _ _ _ _ _ _ _ _ _ Hw) as (s1 & ps1 & ser2 & qs & fs & F & Hc & ->).
  destruct F as [|_ Ess|Eps _ _]; [|rewrite Esk, (starts_ss_hd47 t1 Hh1) in Ess; discriminate | lia].
  destruct (parse_query_and_fragment_app _ _ _ _ _ _ _ _ _ Hc) as (t2 & Ht2 & Hh2). subst ser2.
  unfold opaque_ok. cbn [ser scheme_end] in *. rewrite <- app_assoc in *.
  split; [exact Hall|]. split; [|split].
  - unfold nfirstn. rewrite firstn_app_ge by (unfold nlen in *; lia).
    apply Forall_firstn. exact Hsr.
  - unfold cannot_be_a_base, u_slice_from, slice_from_o. cbn [ser scheme_end].
    rewrite nlen_app. replace (se + 1 <=? nlen sr + nlen (t1 ++ t2)) with true by lia. cbn [bindo].
    unfold nskipn. rewrite skipn_app_ge by (unfold nlen in *; lia).
    rewrite skipn_all2 by (unfold nlen in *; lia). cbn [app].
    rewrite starts_with_47, hd47_app; [reflexivity | exact Hh1 | exact Hh2].
  - unfold nfirstn. rewrite firstn_app_ge by (unfold nlen in *; lia). exact Hsp.
Qed.

Lemma usv_list_drop_while f l : usv_list l -> usv_list (drop_while f l).
Proof. apply (okl_drop_while is_usv). Qed.

Lemma usv_list_trim l : usv_list l -> usv_list (input_new_trim_c0 l).
Proof.
  intros H. unfold input_new_trim_c0, trim_matches.
  apply Forall_rev, usv_list_drop_while, Forall_rev, usv_list_drop_while. exact H.
Qed.

Lemma parse_scheme_loop_rest ctx l : forall acc s r, usv_list l ->
  parse_scheme_loop ctx acc l = Some (s, r) -> usv_list r.
Proof.
  induction l as [|c t IH]; intros acc s r Hu H; cbn [parse_scheme_loop] in H.
  - destruct (ctx_eqb ctx CSetter); [|discriminate]. inversion H; subst. constructor.
  - inversion Hu; subst. destruct (is_tnl c); [eapply IH; eassumption|].
    destruct (is_lower c || is_digit c || (c =? 43) || (c =? 45) || (c =? 46)); [eapply IH; eassumption|].
    destruct (is_upper c); [eapply IH; eassumption|].
    destruct (c =? 58); [|discriminate]. inversion H; subst. assumption.
Qed.

Lemma parse_scheme_rest ctx l s r : usv_list l -> parse_scheme ctx l = Some (s, r) -> usv_list r.
Proof.
  unfold parse_scheme. intros Hu H. destruct (inp_starts_with_pred is_alpha l); [|discriminate].
  eapply parse_scheme_loop_rest; eassumption.
Qed.

Theorem parse_url_sharp base input u :
  usv_list input ->
  match base with Some b => sharp b | None => True end ->
  PU base input = POk u -> sharp u.
Proof.
  intros Hu Hbase H.
  destruct (url_opaque_input input) eqn:Eop.
  - (* the opaque-path state is entered *)
    right. unfold url_opaque_input in Eop. unfold parse_url in H. cbv zeta in H.
    destruct (parse_scheme CUrlParser (input_new_trim_c0 input)) as [[scheme remaining]|] eqn:Es; [|discriminate].
    pose proof (parse_scheme_rest _ _ _ _ (usv_list_trim _ Hu) Es) as Hur.
    pose proof (parse_scheme_ok _ _ _ _ Es) as Hsch.
    unfold opaque_input in Eop. unfold parse_with_scheme in H. pb H se Hse. apply to_u32_ok in Hse. cbv zeta in H.
    destruct (scheme_type_of scheme) eqn:Est; try discriminate.
    eapply parse_non_special_opaque; [exact Hur | exact Eop | | | | exact H].
    + rewrite nlen_app, Hse. reflexivity.
    + apply Forall_app. split; [exact Hsch | repeat constructor; unfold ok_byte; lia].
    + subst se. unfold nfirstn, nlen. rewrite Nat2N.id, firstn_app_ge by lia. rewrite firstn_all, Est. reflexivity.
  - (* it is not: nothing can write a space *)
    assert (forall base', match base' with Some b => Forall ok_byte (ser b) | None => True end ->
                          PU base' input = POk u -> sharp u) as Hplain.
    { intros base' Hb' H'. left.
      eapply (parse_url_okl ok_byte (fun _ h => h)); [exact HOK | | exact H' | exact Hb'].
      rewrite Eop. discriminate. }
    destruct base as [b|]; [|apply (Hplain None I H)].
    destruct Hbase as [Hb|Hb]; [apply (Hplain (Some b) Hb H)|].
    (* an opaque base with spaces: only its fragment can be replaced *)
    destruct Hb as (Hs & Hpre & Hcbb & Hsp).
    unfold parse_url in H. cbv zeta in H.
    destruct (parse_scheme CUrlParser (input_new_trim_c0 input)) as [[scheme remaining]|] eqn:Es.
    + rewrite parse_with_scheme_nonspecial_base in H by exact Hsp.
      apply (Hplain None I). unfold parse_url. cbv zeta. rewrite Es. exact H.
    + destruct (inp_starts_with_char 35 (input_new_trim_c0 input)).
      * eapply fragment_only_sharp; [|exact H]. repeat split; assumption.
      * rewrite Hcbb in H. discriminate.
Qed.

End Sharp.
