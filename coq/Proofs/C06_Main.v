(* Proofs/C06_Main.v - the per-mutator results in the conditional form other developments import
   (`<mutator>_wf` : the invariant is preserved), and the assembled C06 statements. *)
From RU Require Import Base.Prelude Base.Utf8 Model.AsciiSet Gen.Tables Model.PercentEncoding
  Model.HostT Model.UrlRecord Model.Parser Model.Setters Model.WF
  Proofs.ListN Proofs.C03_WF Proofs.C06_List Proofs.C06_WFI Proofs.C06_Tail Proofs.C06_Steps Proofs.C06_Suffix
  Proofs.C06_Front Proofs.C06_Atomic Proofs.C06_FragQuery Proofs.C06_Port Proofs.C06_Cred Proofs.C06_Scheme
  Proofs.C06_HostNone Proofs.C06_Host Proofs.C06_PathParser Proofs.C06_Path Proofs.C06_Segments Proofs.C06_PathNoAuth.

(* the invariant of the C06 theorems: the executable wf_b plus "the host text matches the host kind
   as far as the setters care" (non-empty, not starting with ':' or '@') *)
Definition wfh (u : url) : Prop := wf_b u = true /\ host_text_ok u.

Lemma host_text_ok_of_host_str u u' : wf_b u = true -> wf_b u' = true -> host_str u' = host_str u ->
  host_start u' = host_start u -> host_end u' = host_end u -> hosti u' = hosti u ->
  host_text_ok u -> host_text_ok u'.
Proof.
  intros W W' Hs E3 E4 E5 HT Hh. unfold has_host in Hh. rewrite E5 in Hh. fold (has_host u) in Hh.
  destruct (HT Hh) as (T1 & T2 & T3). rewrite E3, E4. split; [exact T1|].
  rewrite (host_str_eval u' W'), (host_str_eval u W) in Hs.
  assert (has_host u' = true) as Hh' by (unfold has_host; rewrite E5; exact Hh).
  rewrite Hh, Hh' in Hs. inversion Hs as [Hp]. unfold piece in Hp. cbn [pidx] in Hp. rewrite E3, E4 in Hp.
  assert (forall l, nnth (nfirstn (host_end u - host_start u) (nskipn (host_start u) l)) 0 = nnth l (host_start u)) as Hn.
  { intros l. rewrite nnth_nfirstn by lia. rewrite nnth_nskipn. f_equal. lia. }
  unfold byte_eqb. rewrite <- (Hn (ser u')), Hp, (Hn (ser u)). split; assumption.
Qed.

Lemma same_main_fields u u' : same_main u u' ->
  host_start u' = host_start u /\ host_end u' = host_end u /\ hosti u' = hosti u.
Proof. intros (_ & _ & A & B & C & _). tauto. Qed.

Section Main.
Variable dbg : bool.
Variable host_parse : list N -> result host.
Variable host_parse_opaque : list N -> result host.
Variable host_display : host -> list N.

Lemma set_fragment_wf u f u' : wf_b u = true -> set_fragment dbg u f = Some u' -> wf_b u' = true.
Proof.
  intros W E. destruct (set_fragment_ok dbg u f W) as (u'' & E' & W' & _). rewrite E in E'. inversion E'; subst. exact W'.
Qed.

Lemma set_fragment_wfh u f u' : wfh u -> set_fragment dbg u f = Some u' -> wfh u'.
Proof.
  intros [W HT] E. destruct (set_fragment_ok dbg u f W) as (u'' & E' & W' & (_ & _ & _ & Hs & _) & SM & _).
  rewrite E in E'. inversion E'; subst u''. split; [exact W'|].
  destruct (same_main_fields _ _ SM) as (A & B & C). exact (host_text_ok_of_host_str u u' W W' Hs A B C HT).
Qed.

Lemma set_query_wf u q u' : wf_b u = true -> match q with Some x => usv_list x | None => True end ->
  set_query dbg u q = Some u' -> wf_b u' = true.
Proof.
  intros W Hq E. destruct (set_query_ok dbg u q W Hq) as (u'' & E' & W' & _). rewrite E in E'. inversion E'; subst. exact W'.
Qed.

Lemma set_query_wfh u q u' : wfh u -> match q with Some x => usv_list x | None => True end ->
  set_query dbg u q = Some u' -> wfh u'.
Proof.
  intros [W HT] Hq E. destruct (set_query_ok dbg u q W Hq) as (u'' & E' & W' & (_ & _ & _ & Hs & _) & SM & _).
  rewrite E in E'. inversion E'; subst u''. split; [exact W'|].
  destruct (same_main_fields _ _ SM) as (A & B & C). exact (host_text_ok_of_host_str u u' W W' Hs A B C HT).
Qed.

Lemma set_port_internal_wf u p u' : wfh u -> has_host u = true ->
  match p with Some x => x <= 65535 | None => True end ->
  set_port_internal dbg u p = Some u' -> wfh u'.
Proof.
  intros [W HT] Hh Hp E. destruct (set_port_internal_ok dbg u p W HT Hh Hp) as (u'' & E' & W' & HT' & _).
  rewrite E in E'. inversion E'; subst. split; assumption.
Qed.

Lemma set_port_wf u p u' st : wfh u -> match p with Some x => x <= 65535 | None => True end ->
  set_port dbg u p = Some (u', st) -> wfh u'.
Proof.
  intros [W HT] Hp E. destruct (set_port_ok dbg u p W HT Hp) as (u'' & st' & E' & Herr & Hok).
  rewrite E in E'. inversion E'; subst u'' st'.
  destruct st; [destruct (Hok eq_refl) as (W' & HT' & _); split; assumption | |];
    rewrite Herr by discriminate; split; assumption.
Qed.

Lemma set_password_wf u pw u' st : wfh u -> set_password dbg u pw = Some (u', st) -> wfh u'.
Proof.
  intros [W HT] E. destruct (set_password_ok dbg u pw W HT) as (u'' & st' & E' & Herr & Hok).
  rewrite E in E'. inversion E'; subst u'' st'.
  destruct st; [destruct (Hok eq_refl) as (W' & HT' & _); split; assumption | |];
    rewrite Herr by discriminate; split; assumption.
Qed.

Lemma set_username_wf u un u' st : wfh u -> set_username dbg u un = Some (u', st) -> wfh u'.
Proof.
  intros [W HT] E. destruct (set_username_ok dbg u un W HT) as (u'' & st' & E' & Herr & Hok).
  rewrite E in E'. inversion E'; subst u'' st'.
  destruct st; [destruct (Hok eq_refl) as (W' & HT' & _); split; assumption | |];
    rewrite Herr by discriminate; split; assumption.
Qed.

Lemma set_scheme_wf u s u' st : wfh u -> set_scheme dbg u s = Some (u', st) -> wfh u'.
Proof.
  intros [W HT] E. destruct (set_scheme_ok dbg u s W HT) as (u'' & st' & E' & Herr & Hok).
  rewrite E in E'. inversion E'; subst u'' st'.
  destruct st; [destruct (Hok eq_refl) as (new & rem & _ & W' & HT' & _); split; assumption | |];
    rewrite Herr by discriminate; split; assumption.
Qed.

(* set_host(None): outside the two known classes *)
Lemma set_host_none_wf u u' st : wfh u ->
  path_empty_at_end u = false -> path_starts_with_2slash u = false ->
  set_host dbg host_parse host_parse_opaque host_display u None = Some (u', st) -> wfh u'.
Proof.
  intros [W HT] X1 X2 E.
  destruct (set_host_none_ok dbg host_parse host_parse_opaque host_display u u' st W E) as (Herr & Hno & Hok).
  destruct st; [| rewrite Herr by discriminate; split; assumption ..].
  destruct (has_host u) eqn:Hh.
  - destruct (Hok eq_refl eq_refl X1 X2) as (W' & HT' & _). split; assumption.
  - rewrite (Hno eq_refl eq_refl). split; assumption.
Qed.

(* set_host_internal / set_ip_host / set_host(Some): outside F-C02-4 (empty host with a port) and
   F-C03-5 ("/." marker) *)
Lemma set_host_internal_wf u h u' : wf_b u = true -> host_disp_ok host_display h ->
  (has_authority_b u = true -> hi_of_host h = HI_None -> port u = None) ->
  (has_authority_b u = false -> path_start u = scheme_end u + 1) ->
  byte_eqb (ser u) (scheme_end u + 1) 47 = true ->
  set_host_internal dbg host_display u h None = Some u' -> wfh u'.
Proof.
  intros W Hd X1 X2 Hsl E.
  destruct (set_host_internal_post dbg host_display u h u' W Hd X1 X2 Hsl E) as (W' & HT' & _). split; assumption.
Qed.

Lemma set_ip_host_wf u h u' st : wfh u -> host_disp_ok host_display h ->
  (has_authority_b u = true -> hi_of_host h = HI_None -> port u = None) ->
  (has_authority_b u = false -> path_start u = scheme_end u + 1) ->
  set_ip_host dbg host_display u h = Some (u', st) -> wfh u'.
Proof.
  intros [W HT] Hd X1 X2 E. destruct (set_ip_host_ok dbg host_display u h u' st W Hd X2 E) as (Herr & Hok).
  destruct st; [destruct (Hok eq_refl X1) as (W' & HT' & _); split; assumption | |];
    rewrite Herr by discriminate; split; assumption.
Qed.

Definition fails_atomically {A} (m : url -> A -> option (url * status)) : Prop :=
  forall u a u' st, m u a = Some (u', st) -> st <> SOk -> u' = u.

Theorem atomic_all :
  fails_atomically (set_port dbg)
  /\ fails_atomically (set_host dbg host_parse host_parse_opaque host_display)
  /\ fails_atomically (set_ip_host dbg host_display)
  /\ fails_atomically (set_password dbg)
  /\ fails_atomically (set_username dbg)
  /\ fails_atomically (set_scheme dbg)
  /\ fails_atomically (path_segments_session dbg)
  /\ fails_atomically (q_set_protocol dbg)
  /\ fails_atomically (q_set_username dbg)
  /\ fails_atomically (q_set_password dbg)
  /\ fails_atomically (q_set_host dbg host_parse host_parse_opaque host_display)
  /\ fails_atomically (q_set_hostname dbg host_parse host_parse_opaque host_display)
  /\ fails_atomically (q_set_port dbg).
Proof.
  unfold fails_atomically. splits; intros u a u' st.
  - apply set_port_atomic.
  - apply set_host_atomic.
  - apply set_ip_host_atomic.
  - apply set_password_atomic.
  - apply set_username_atomic.
  - apply set_scheme_atomic.
  - apply path_segments_session_atomic.
  - apply q_set_protocol_atomic.
  - apply q_set_username_atomic.
  - apply q_set_password_atomic.
  - apply q_set_host_atomic.
  - apply q_set_hostname_atomic.
  - apply q_set_port_atomic.
Qed.

(* the eight observations of the property text *)
Definition unchanged_but_fragment (u u' : url) : Prop :=
  same_front dbg u u' /\ query dbg u' = query dbg u.
Definition unchanged_but_query (u u' : url) : Prop :=
  same_front dbg u u' /\ fragment dbg u' = fragment dbg u.
(* the documented opaque-path coupling: removing the last of query/fragment strips trailing spaces *)
Definition path_same_or_stripped (strip : bool) (u u' : url) : Prop :=
  if strip then exists p, path u = Some p /\ path u' = Some (rstrip (fun c => c =? 32) p)
  else path u' = path u.

Definition port_arg_ok (p : option N) : Prop := match p with Some x => x <= 65535 | None => True end.
Definition str_arg_ok (q : option (list N)) : Prop := match q with Some x => usv_list x | None => True end.

Theorem frame_all u : wfh u ->
  (forall f u', set_fragment dbg u f = Some u' ->
     unchanged_but_fragment u u'
     /\ path_same_or_stripped (match f with None => opaque_strip_applies u | Some _ => false end) u u')
  /\ (forall q u', str_arg_ok q -> set_query dbg u q = Some u' ->
     unchanged_but_query u u'
     /\ path_same_or_stripped (match q with None => is_opaque_b u && negb (has_some (fragment_start u)) | Some _ => false end) u u')
  /\ (forall p u', port_arg_ok p -> set_port dbg u p = Some (u', SOk) ->
     same_ids dbg u u' /\ same_back dbg u u')
  /\ (forall pw u', set_password dbg u pw = Some (u', SOk) ->
     scheme u' = scheme u /\ username dbg u' = username dbg u /\ host_str u' = host_str u /\ port u' = port u
     /\ same_back dbg u u')
  /\ (forall un u', set_username dbg u un = Some (u', SOk) ->
     scheme u' = scheme u /\ password dbg u' = password dbg u /\ host_str u' = host_str u /\ port u' = port u
     /\ same_back dbg u u')
  /\ (forall s u', set_scheme dbg u s = Some (u', SOk) ->
     username dbg u' = username dbg u /\ password dbg u' = password dbg u /\ host_str u' = host_str u
     /\ same_back dbg u u' /\ (port u' = port u \/ port u' = None))
  /\ (forall u', set_host dbg host_parse host_parse_opaque host_display u None = Some (u', SOk) ->
     (has_host u = false -> u' = u)
     /\ (has_host u = true -> path_empty_at_end u = false -> path_starts_with_2slash u = false ->
         scheme u' = scheme u /\ same_back dbg u u'))
  /\ (forall x u', (forall h, host_disp_ok host_display h) ->
     (has_authority_b u = false -> path_start u = scheme_end u + 1) ->
     set_host dbg host_parse host_parse_opaque host_display u (Some x) = Some (u', SOk) ->
     exists h, (has_authority_b u = true -> hi_of_host h = HI_None -> port u = None) ->
       scheme u' = scheme u /\ username dbg u' = username dbg u /\ password dbg u' = password dbg u
       /\ port u' = port u /\ same_back dbg u u')
  /\ (forall h u', host_disp_ok host_display h ->
     (has_authority_b u = false -> path_start u = scheme_end u + 1) ->
     (has_authority_b u = true -> hi_of_host h = HI_None -> port u = None) ->
     set_ip_host dbg host_display u h = Some (u', SOk) ->
     scheme u' = scheme u /\ username dbg u' = username dbg u /\ password dbg u' = password dbg u
     /\ port u' = port u /\ same_back dbg u u').
Proof.
  intros [W HT]. splits.
  - intros f u' E. destruct (set_fragment_ok dbg u f W) as (u'' & E' & W' & SF & SM & Q & F & P).
    rewrite E in E'. inversion E'; subst u''. split; [split; assumption|].
    unfold path_same_or_stripped. destruct f; [exact P|]. exact P.
  - intros q u' Hq E. destruct (set_query_ok dbg u q W Hq) as (u'' & E' & W' & SF & SM & F & Q & P).
    rewrite E in E'. inversion E'; subst u''. split; [split; assumption|].
    unfold path_same_or_stripped. destruct q; exact P.
  - intros p u' Hp E. destruct (set_port_ok dbg u p W HT Hp) as (u'' & st' & E' & _ & Hok).
    rewrite E in E'. inversion E'; subst u'' st'. destruct (Hok eq_refl) as (_ & _ & I & B & _). split; assumption.
  - intros pw u' E. destruct (set_password_ok dbg u pw W HT) as (u'' & st' & E' & _ & Hok).
    rewrite E in E'. inversion E'; subst u'' st'. destruct (Hok eq_refl) as (_ & _ & A & B & C & D & F & _).
    splits; assumption.
  - intros un u' E. destruct (set_username_ok dbg u un W HT) as (u'' & st' & E' & _ & Hok).
    rewrite E in E'. inversion E'; subst u'' st'. destruct (Hok eq_refl) as (_ & _ & A & B & C & D & F & _).
    splits; assumption.
  - intros s u' E. destruct (set_scheme_ok dbg u s W HT) as (u'' & st' & E' & _ & Hok).
    rewrite E in E'. inversion E'; subst u'' st'.
    destruct (Hok eq_refl) as (new & rem & _ & _ & _ & _ & A & B & C & D & P).
    splits; try assumption. rewrite P. unfold norm_port. destruct (port u) as [x|]; [|left; reflexivity].
    destruct (opt_eqb (Some x) (default_port new)); [right | left]; reflexivity.
  - intros u' E.
    destruct (set_host_none_ok dbg host_parse host_parse_opaque host_display u u' SOk W E) as (_ & Hno & Hok).
    split; [intros Hh; apply Hno; [reflexivity | exact Hh]|].
    intros Hh X1 X2. destruct (Hok eq_refl Hh X1 X2) as (_ & _ & A & B & _). split; assumption.
  - intros x u' Hd X2 E.
    destruct (set_host_some_ok dbg host_parse host_parse_opaque host_display u x u' SOk W Hd X2 E) as (_ & Hok).
    destruct (Hok eq_refl) as (h & Hh). exists h. intros X1.
    destruct (Hh X1) as (_ & _ & A & B & C & D & F & _). splits; assumption.
  - intros h u' Hd X2 X1 E.
    destruct (set_ip_host_ok dbg host_display u h u' SOk W Hd X2 E) as (_ & Hok).
    destruct (Hok eq_refl X1) as (_ & _ & A & B & C & D & F & _). splits; assumption.
Qed.

(* get-after-set: the component reads back as the text the parser state writes for the argument *)
Theorem get_all u : wfh u ->
  (forall f u', set_fragment dbg u f = Some u' ->
     fragment dbg u' = Some (match f with Some x => Some (tnl_text T_FRAGMENT x) | None => None end))
  /\ (forall q u', str_arg_ok q -> set_query dbg u q = Some u' ->
     query dbg u' = Some (match q with Some x => Some (query_text u x) | None => None end))
  /\ (forall p u', port_arg_ok p -> set_port dbg u p = Some (u', SOk) ->
     exists sch, scheme u = Some sch /\ port u' = norm_port sch p)
  /\ (forall pw u', set_password dbg u pw = Some (u', SOk) ->
     password dbg u' = Some (match pw with Some (c :: r) => Some (userinfo_enc (c :: r)) | _ => None end))
  /\ (forall un u', set_username dbg u un = Some (u', SOk) ->
     exists cur, username dbg u = Some cur
       /\ username dbg u' = Some (if list_eqb cur (utf8_encode un) then cur else userinfo_enc un))
  /\ (forall s u', set_scheme dbg u s = Some (u', SOk) ->
     exists new rem, parse_scheme CSetter s = Some (new, rem) /\ scheme u' = Some new)
  /\ (forall h u', host_disp_ok host_display h ->
     (has_authority_b u = false -> path_start u = scheme_end u + 1) ->
     (has_authority_b u = true -> hi_of_host h = HI_None -> port u = None) ->
     set_ip_host dbg host_display u h = Some (u', SOk) ->
     host_str u' = Some (if hi_some (hi_of_host h) then Some (host_display h) else None)
     /\ hosti u' = hi_of_host h).
Proof.
  intros [W HT]. splits.
  - intros f u' E. destruct (set_fragment_ok dbg u f W) as (u'' & E' & W' & SF & SM & Q & F & P).
    rewrite E in E'. inversion E'; subst u''. exact F.
  - intros q u' Hq E. destruct (set_query_ok dbg u q W Hq) as (u'' & E' & W' & SF & SM & F & Q & P).
    rewrite E in E'. inversion E'; subst u''. exact Q.
  - intros p u' Hp E. destruct (set_port_ok dbg u p W HT Hp) as (u'' & st' & E' & _ & Hok).
    rewrite E in E'. inversion E'; subst u'' st'. destruct (Hok eq_refl) as (_ & _ & _ & _ & R). exact R.
  - intros pw u' E. destruct (set_password_ok dbg u pw W HT) as (u'' & st' & E' & _ & Hok).
    rewrite E in E'. inversion E'; subst u'' st'. destruct (Hok eq_refl) as (_ & _ & _ & _ & _ & _ & _ & R). exact R.
  - intros un u' E. destruct (set_username_ok dbg u un W HT) as (u'' & st' & E' & _ & Hok).
    rewrite E in E'. inversion E'; subst u'' st'. destruct (Hok eq_refl) as (_ & _ & _ & _ & _ & _ & _ & R). exact R.
  - intros s u' E. destruct (set_scheme_ok dbg u s W HT) as (u'' & st' & E' & _ & Hok).
    rewrite E in E'. inversion E'; subst u'' st'.
    destruct (Hok eq_refl) as (new & rem & Ep & _ & _ & S & _). exists new, rem. split; assumption.
  - intros h u' Hd X2 X1 E.
    destruct (set_ip_host_ok dbg host_display u h u' SOk W Hd X2 E) as (_ & Hok).
    destruct (Hok eq_refl X1) as (_ & _ & _ & _ & _ & _ & _ & A & B). split; assumption.
Qed.

(* the documented couplings *)
Theorem couple_all u : wfh u ->
  (* removing the host removes credentials and port *)
  (forall u', set_host dbg host_parse host_parse_opaque host_display u None = Some (u', SOk) ->
     has_host u = true -> path_empty_at_end u = false -> path_starts_with_2slash u = false ->
     username dbg u' = Some [] /\ password dbg u' = Some None /\ host_str u' = Some None /\ port u' = None)
  (* a default port is stored as none *)
  /\ (forall p u' sch, p <= 65535 -> set_port dbg u (Some p) = Some (u', SOk) -> scheme u = Some sch ->
     default_port sch = Some p -> port u' = None)
  (* changing the scheme drops a port equal to the new default *)
  /\ (forall s u' new rem p, set_scheme dbg u s = Some (u', SOk) -> parse_scheme CSetter s = Some (new, rem) ->
     port u = Some p -> port u' = if opt_eqb (Some p) (default_port new) then None else Some p).
Proof.
  intros [W HT]. splits.
  - intros u' E Hh X1 X2.
    destruct (set_host_none_ok dbg host_parse host_parse_opaque host_display u u' SOk W E) as (_ & _ & Hok).
    destruct (Hok eq_refl Hh X1 X2) as (_ & _ & _ & _ & A & B & C & D). splits; assumption.
  - intros p u' sch Hp E Es Ed.
    destruct (set_port_ok dbg u (Some p) W HT Hp) as (u'' & st' & E' & _ & Hok).
    rewrite E in E'. inversion E'; subst u'' st'. destruct (Hok eq_refl) as (_ & _ & _ & _ & (s1 & Es1 & R)).
    rewrite Es in Es1. inversion Es1; subst s1. rewrite R. unfold norm_port. rewrite Ed. cbn [opt_eqb].
    rewrite N.eqb_refl. reflexivity.
  - intros s u' new rem p E Ep Epo.
    destruct (set_scheme_ok dbg u s W HT) as (u'' & st' & E' & _ & Hok).
    rewrite E in E'. inversion E'; subst u'' st'.
    destruct (Hok eq_refl) as (new' & rem' & Ep' & _ & _ & _ & _ & _ & _ & _ & P).
    rewrite Ep in Ep'. inversion Ep'; subst new' rem'. rewrite P, Epo. reflexivity.
Qed.

Theorem wf_all u : wfh u ->
  (forall f u', set_fragment dbg u f = Some u' -> wfh u')
  /\ (forall q u', str_arg_ok q -> set_query dbg u q = Some u' -> wfh u')
  /\ (forall p u' st, port_arg_ok p -> set_port dbg u p = Some (u', st) -> wfh u')
  /\ (forall pw u' st, set_password dbg u pw = Some (u', st) -> wfh u')
  /\ (forall un u' st, set_username dbg u un = Some (u', st) -> wfh u')
  /\ (forall s u' st, set_scheme dbg u s = Some (u', st) -> wfh u')
  /\ (forall u' st, path_empty_at_end u = false -> path_starts_with_2slash u = false ->
        set_host dbg host_parse host_parse_opaque host_display u None = Some (u', st) -> wfh u')
  /\ (forall h u' st, host_disp_ok host_display h ->
        (has_authority_b u = true -> hi_of_host h = HI_None -> port u = None) ->
        (has_authority_b u = false -> path_start u = scheme_end u + 1) ->
        set_ip_host dbg host_display u h = Some (u', st) -> wfh u').
Proof.
  intros H. splits.
  - intros f u' E. exact (set_fragment_wfh u f u' H E).
  - intros q u' Hq E. exact (set_query_wfh u q u' H Hq E).
  - intros p u' st Hp E. exact (set_port_wf u p u' st H Hp E).
  - intros pw u' st E. exact (set_password_wf u pw u' st H E).
  - intros un u' st E. exact (set_username_wf u un u' st H E).
  - intros s u' st E. exact (set_scheme_wf u s u' st H E).
  - intros u' st X1 X2 E. exact (set_host_none_wf u u' st H X1 X2 E).
  - intros h u' st Hd X1 X2 E. exact (set_ip_host_wf u h u' st H Hd X1 X2 E).
Qed.

(* set_path and path_segments_mut sessions on a URL with an authority (outside F-C02-3: opaque path,
   F-C02-8 / F-C03-5: authority-less URL) *)
Lemma set_path_wf u p u' : wfh u -> has_authority_b u = true -> usv_list p -> auth_end_ok u ->
  set_path dbg u p = Some u' -> wfh u'.
Proof.
  intros [W HT] Ha Hp Hx E. destruct (set_path_ok dbg u p u' W HT Ha Hp Hx E) as (W' & HT' & _). split; assumption.
Qed.

Lemma path_segments_session_wf u ops u' st : wfh u -> has_authority_b u = true -> Forall psm_op_usv ops ->
  path_segments_session dbg u ops = Some (u', st) -> wfh u'.
Proof.
  intros [W HT] Ha Hops E. destruct st.
  - destruct (path_segments_session_ok dbg u ops u' W HT Ha Hops E) as (W' & HT' & _). split; assumption.
  - rewrite (path_segments_session_atomic dbg u ops u' _ E) by discriminate. split; assumption.
  - rewrite (path_segments_session_atomic dbg u ops u' _ E) by discriminate. split; assumption.
Qed.

Theorem path_all u : wfh u -> has_authority_b u = true ->
  (forall p u', usv_list p -> auth_end_ok u -> set_path dbg u p = Some u' ->
     wfh u' /\ same_front dbg u u' /\ query dbg u' = query dbg u /\ fragment dbg u' = fragment dbg u
     /\ exists P, path u' = Some P /\ new_path_ok P
        /\ exists hh rem, parse_path_start dbg CSetter (scheme_type_of (nfirstn (scheme_end u) (ser u))) true
                            (nfirstn (path_start u) (ser u)) p
                          = POk (nfirstn (path_start u) (ser u) ++ P, hh, rem))
  /\ (forall ops u', Forall psm_op_usv ops -> path_segments_session dbg u ops = Some (u', SOk) ->
     wfh u' /\ same_front dbg u u' /\ query dbg u' = query dbg u /\ fragment dbg u' = fragment dbg u
     /\ exists P, path u' = Some P /\ new_path_ok P).
Proof.
  intros [W HT] Ha. split.
  - intros p u' Hp Hx E. destruct (set_path_ok dbg u p u' W HT Ha Hp Hx E) as (W' & HT' & A & B & C & D).
    split; [split; assumption|]. splits; assumption.
  - intros ops u' Hops E. destruct (path_segments_session_ok dbg u ops u' W HT Ha Hops E) as (W' & HT' & A & B & C & D).
    split; [split; assumption|]. splits; assumption.
Qed.

End Main.
