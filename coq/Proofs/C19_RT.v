(* Proofs/C19_RT.v - parsing the serialization of a parse result gives the same value.
   The serialization is  type "/" subtype (";" name "=" value-or-quoted-value)*.
   `split(';')` of the parameter part is the concatenation of the piece lists of the single
   parameters (pieces_app_sep); the scanner, started inside the first piece of an escaped value,
   reads exactly that value back and hands back exactly the pieces of the following parameters
   (scan_escape); so one turn of the loop consumes one serialized parameter (rt_turn, iterated in rt_loop). *)
From RU Require Import Base.Prelude Base.Utf8Facts Model.Mime
  Proofs.C19_Tables Proofs.C19_Pure Proofs.C19_Normal.

Lemma trim_start_head c s : http_whitespace c = false -> trim_start (c :: s) = c :: s.
Proof. intros H. cbn [trim_start]. rewrite H. reflexivity. Qed.

Lemma trim_end_cons c r :
  trim_end (c :: r) = match trim_end r with
                      | [] => if http_whitespace c then [] else [c]
                      | r' => c :: r'
                      end.
Proof. reflexivity. Qed.

Lemma trim_end_app_stable x y : y <> [] -> trim_end y = y -> trim_end (x ++ y) = x ++ y.
Proof.
  intros Hne Hy. induction x as [|a x IH]; [exact Hy|].
  cbn [app]. rewrite trim_end_cons, IH. destruct (x ++ y) eqn:E; [|reflexivity].
  apply app_eq_nil in E. destruct E as [_ E]. contradiction.
Qed.

Lemma trim_end_single c : http_whitespace c = false -> trim_end [c] = [c].
Proof. intros H. cbn [trim_end]. rewrite H. reflexivity. Qed.

Lemma trim_end_snoc s c : http_whitespace c = false -> trim_end (s ++ [c]) = s ++ [c].
Proof. intros H. apply trim_end_app_stable; [discriminate|exact (trim_end_single c H)]. Qed.

Lemma trim_end_tokens s : tokens s = true -> trim_end s = s.
Proof.
  unfold tokens. induction s as [|c s IH]; intros H; [reflexivity|].
  cbn [forallb] in H. apply andb_true_iff in H. destruct H as [Hc Hs].
  rewrite trim_end_cons, (IH Hs). destruct s; [|reflexivity]. rewrite (tchar_not_ws c Hc). reflexivity.
Qed.

Definition nosep (sep : N) (a : list N) : bool := forallb (fun c => negb (c =? sep)) a.

Lemma tokens_nosep sep a : rfc7230_tchar sep = false -> tokens a = true -> nosep sep a = true.
Proof.
  intros Hsep. unfold tokens, nosep. rewrite !forallb_forall. intros H c Hc. specialize (H c Hc).
  destruct (c =? sep) eqn:E; [|reflexivity]. apply N.eqb_eq in E. subst. congruence.
Qed.

Lemma split_once_app_sep sep a b : nosep sep a = true -> split_once sep (a ++ sep :: b) = (a, Some b).
Proof.
  unfold nosep. induction a as [|c a IH]; intros H; cbn [app split_once].
  - rewrite N.eqb_refl. reflexivity.
  - cbn [forallb] in H. apply andb_true_iff in H. destruct H as [Hc Ha]. apply negb_true_iff in Hc.
    rewrite Hc, (IH Ha). reflexivity.
Qed.

Lemma split_once_nosep sep a : nosep sep a = true -> split_once sep a = (a, None).
Proof.
  unfold nosep. induction a as [|c a IH]; intros H; cbn [split_once]; [reflexivity|].
  cbn [forallb] in H. apply andb_true_iff in H. destruct H as [Hc Ha]. apply negb_true_iff in Hc.
  rewrite Hc, (IH Ha). reflexivity.
Qed.

Definition pieces (s : list N) : list (list N) := fst (split_all 59 s) :: snd (split_all 59 s).

Lemma split_all_cons sep c r :
  split_all sep (c :: r) =
  if c =? sep then ([], fst (split_all sep r) :: snd (split_all sep r))
  else (c :: fst (split_all sep r), snd (split_all sep r)).
Proof. cbn [split_all]. destruct (split_all sep r) as [p ps]. reflexivity. Qed.

Lemma pieces_app_sep a b : pieces (a ++ 59 :: b) = pieces a ++ pieces b.
Proof.
  unfold pieces. induction a as [|c a IH]; cbn [app].
  - rewrite split_all_cons, N.eqb_refl. reflexivity.
  - rewrite !split_all_cons. destruct (c =? 59); cbn [fst snd].
    + rewrite IH. reflexivity.
    + inversion IH as [[H1 H2]]. rewrite H1, H2. reflexivity.
Qed.

Lemma split_all_nosep a b :
  nosep 59 a = true ->
  split_all 59 (a ++ b) = (a ++ fst (split_all 59 b), snd (split_all 59 b)).
Proof.
  unfold nosep. induction a as [|c a IH]; intros H; cbn [app].
  - destruct (split_all 59 b); reflexivity.
  - cbn [forallb] in H. apply andb_true_iff in H. destruct H as [Hc Ha]. apply negb_true_iff in Hc.
    rewrite split_all_cons, Hc, (IH Ha). reflexivity.
Qed.

Lemma pieces_nosep a : nosep 59 a = true -> pieces a = [a].
Proof.
  intros H. unfold pieces. rewrite <- (app_nil_r a) at 1 2. rewrite (split_all_nosep a [] H).
  cbn [split_all fst snd]. rewrite app_nil_r. reflexivity.
Qed.

Lemma nosep_app sep a b : nosep sep (a ++ b) = nosep sep a && nosep sep b.
Proof. unfold nosep. apply forallb_app. Qed.

Lemma escape_value_cons c v :
  escape_value (c :: v) = (if (c =? 34) || (c =? 92) then [92; c] else [c]) ++ escape_value v.
Proof. unfold escape_value. cbn [flat_map]. rewrite mime_escaped_spec. reflexivity. Qed.

Lemma scan_escape v : forall R acc,
  scan_quoted (snd (split_all 59 (escape_value v ++ [34])) ++ R)
              (fst (split_all 59 (escape_value v ++ [34]))) acc = (rev acc ++ v, R).
Proof.
  induction v as [|c v IH]; intros R acc.
  - unfold escape_value. cbn [flat_map app]. rewrite split_all_cons.
    replace (34 =? 59) with false by lia. cbn [split_all fst snd app].
    rewrite scan_cons, N.eqb_refl, app_nil_r. reflexivity.
  - rewrite escape_value_cons. destruct ((c =? 34) || (c =? 92)) eqn:Eesc.
    + cbn [app]. rewrite !split_all_cons. replace (92 =? 59) with false by lia.
      replace (c =? 59) with false by lia. cbn [fst snd].
      rewrite scan_cons. replace (92 =? 34) with false by lia. rewrite N.eqb_refl.
      rewrite IH. cbn [rev]. rewrite <- app_assoc. reflexivity.
    + cbn [app]. rewrite split_all_cons. destruct (c =? 59) eqn:E59; cbn [fst snd].
      * apply N.eqb_eq in E59. subst c. cbn [app]. rewrite scan_nil, IH. cbn [rev]. rewrite <- app_assoc. reflexivity.
      * rewrite scan_cons. replace (c =? 34) with false by lia. replace (c =? 92) with false by lia.
        rewrite IH. cbn [rev]. rewrite <- app_assoc. reflexivity.
Qed.

(* the first piece of an escaped value passes valid_value *)
Lemma first_piece_valid v :
  value_ok v = true -> valid_value (fst (split_all 59 (escape_value v ++ [34]))) = true.
Proof.
  unfold value_ok, valid_value. induction v as [|c v IH]; intros H.
  - unfold escape_value. cbn [flat_map app]. rewrite split_all_cons.
    replace (34 =? 59) with false by lia. cbn [split_all fst forallb]. rewrite valid_value_char_spec. reflexivity.
  - rewrite escape_value_cons. cbn [before_semicolon] in H. destruct ((c =? 34) || (c =? 92)) eqn:Eesc.
    + cbn [app]. rewrite !split_all_cons. replace (92 =? 59) with false by lia.
      replace (c =? 59) with false in * by lia. cbn [fst forallb] in *.
      apply andb_true_iff in H. destruct H as [Hc Hv]. rewrite Hc, (IH Hv).
      rewrite valid_value_char_spec. reflexivity.
    + cbn [app]. rewrite split_all_cons. destruct (c =? 59) eqn:E59; cbn [fst forallb]; [reflexivity|].
      cbn [forallb] in H. apply andb_true_iff in H. destruct H as [Hc Hv]. rewrite Hc, (IH Hv). reflexivity.
Qed.

Lemma bytes_eq_ic_lower_eq a : forall b,
  forallb lower_tchar a = true -> forallb lower_tchar b = true ->
  bytes_eq_ignore_ascii_case a b = true -> a = b.
Proof.
  induction a as [|x a IH]; intros [|y b] Ha Hb H; cbn [bytes_eq_ignore_ascii_case] in H; try discriminate; [reflexivity|].
  cbn [forallb] in Ha, Hb. apply andb_true_iff in Ha. destruct Ha as [Hx Ha].
  apply andb_true_iff in Hb. destruct Hb as [Hy Hb]. apply andb_true_iff in H. destruct H as [Hxy H].
  unfold lower_tchar in Hx, Hy. apply andb_true_iff in Hx. destruct Hx as [_ Hx]. apply andb_true_iff in Hy. destruct Hy as [_ Hy].
  rewrite (to_lower_fix x), (to_lower_fix y) in Hxy by (destruct (is_upper x), (is_upper y); try discriminate; reflexivity).
  apply N.eqb_eq in Hxy. subst y. f_equal. exact (IH b Ha Hb H).
Qed.

Lemma eq_ic_lower_eq a b :
  lower_token a = true -> lower_token b = true -> eq_ignore_ascii_case a b = true -> a = b.
Proof.
  intros Ha Hb. unfold eq_ignore_ascii_case.
  rewrite (utf8_encode_ascii _ (tokens_ascii _ (lower_token_tokens _ Ha))),
          (utf8_encode_ascii _ (tokens_ascii _ (lower_token_tokens _ Hb))).
  unfold lower_token in Ha, Hb. apply andb_true_iff in Ha. apply andb_true_iff in Hb.
  apply bytes_eq_ic_lower_eq; [exact (proj2 Ha)|exact (proj2 Hb)].
Qed.

Lemma name_valid_fresh pre n :
  Forall (fun p => lower_token (fst p) = true) pre -> lower_token n = true -> ~ In n (map fst pre) ->
  p_name_valid pre n = true.
Proof.
  intros Hpre Hn Hni. unfold p_name_valid.
  rewrite (lower_token_nonempty n Hn), (lower_token_tokens n Hn). cbn [negb andb].
  apply negb_true_iff. unfold contains. destruct (existsb _ pre) eqn:E; [|reflexivity].
  apply existsb_exists in E. destruct E as [p [Hin He]]. exfalso. apply Hni.
  rewrite Forall_forall in Hpre. rewrite <- (eq_ic_lower_eq (fst p) n (Hpre p Hin) Hn He).
  apply in_map. exact Hin.
Qed.

Lemma p_params_loop_S fuel piece rest parameters :
  p_params_loop (S fuel) (piece :: rest) parameters =
  let (name, value) := split_once 61 (trim_start piece) in
  let name_ok := p_name_valid parameters name in
  match value with
  | None => p_params_loop fuel rest parameters
  | Some value =>
    match strip_prefix_quote value with
    | Some stripped =>
        let (unescaped_value, rest') := scan_quoted rest stripped [] in
        if negb name_ok || negb (valid_value value) then p_params_loop fuel rest' parameters
        else p_params_loop fuel rest' (parameters ++ [(to_ascii_lowercase name, unescaped_value)])
    | None =>
        let value := trim_end value in
        if is_empty value then p_params_loop fuel rest parameters
        else if negb name_ok || negb (valid_value value) then p_params_loop fuel rest parameters
        else p_params_loop fuel rest (parameters ++ [(to_ascii_lowercase name, value)])
    end
  end.
Proof. reflexivity. Qed.

Definition all_pieces (ps : plist) : list (list N) := flat_map (fun p => pieces (ser_param p)) ps.

Definition rt_param_ok (p : list N * list N) : Prop := lower_token (fst p) = true /\ value_ok (snd p) = true.

Lemma tchar_47 : rfc7230_tchar 47 = false. Proof. reflexivity. Qed.
Lemma tchar_59 : rfc7230_tchar 59 = false. Proof. reflexivity. Qed.
Lemma tchar_61 : rfc7230_tchar 61 = false. Proof. reflexivity. Qed.
Lemma tchar_34 : rfc7230_tchar 34 = false. Proof. reflexivity. Qed.

Lemma lower_token_head n : lower_token n = true -> exists c r, n = c :: r /\ rfc7230_tchar c = true.
Proof.
  intros H. pose proof (lower_token_tokens n H) as Ht. pose proof (lower_token_nonempty n H) as Hne.
  destruct n as [|c r]; [discriminate|]. exists c, r. split; [reflexivity|].
  unfold tokens in Ht. cbn [forallb] in Ht. apply andb_true_iff in Ht. exact (proj1 Ht).
Qed.

Lemma tokens_strip_none v : tokens v = true -> strip_prefix_quote v = None.
Proof.
  unfold tokens, strip_prefix_quote. destruct v as [|c r]; [reflexivity|]. cbn [forallb]. intros H.
  apply andb_true_iff in H. destruct H as [Hc _]. destruct (c =? 34) eqn:E; [|reflexivity].
  apply N.eqb_eq in E. subst. rewrite tchar_34 in Hc. discriminate.
Qed.

Lemma tokens_valid v : tokens v = true -> valid_value v = true.
Proof.
  unfold tokens, valid_value. rewrite !forallb_forall. intros H c Hc. exact (tchar_valid c (H c Hc)).
Qed.

(* one turn of the loop reads one serialized parameter back, whatever pieces follow *)
Lemma rt_turn pre n v R fuel :
  lower_token n = true -> value_ok v = true -> p_name_valid pre n = true ->
  p_params_loop (S fuel) (pieces (ser_param (n, v)) ++ R) pre = p_params_loop fuel R (pre ++ [(n, v)]).
Proof.
  intros Hn Hv Hfresh.
  destruct (lower_token_head n Hn) as [c0 [n' [En Hc0]]].
  pose proof (lower_token_tokens n Hn) as Hnt.
  assert (Htrim : forall x, trim_start (n ++ x) = n ++ x)
    by (intros x; rewrite En; cbn [app]; apply trim_start_head, tchar_not_ws, Hc0).
  unfold ser_param. cbn [fst snd]. unfold p_display_value.
  destruct (tokens v && negb (is_empty v)) eqn:Etok.
  - (* written as a token: one piece *)
    apply andb_true_iff in Etok. destruct Etok as [Hvt Hvne]. apply negb_true_iff in Hvne.
    assert (Hns : nosep 59 (n ++ 61 :: v) = true).
    { rewrite nosep_app. rewrite (tokens_nosep 59 n tchar_59 Hnt). cbn [andb]. unfold nosep. cbn [forallb].
      replace (61 =? 59) with false by lia. cbn [negb andb]. exact (tokens_nosep 59 v tchar_59 Hvt). }
    rewrite (pieces_nosep _ Hns). cbn [app]. rewrite p_params_loop_S, Htrim.
    rewrite (split_once_app_sep 61 n v (tokens_nosep 61 n tchar_61 Hnt)).
    cbv beta iota zeta. rewrite (tokens_strip_none v Hvt), (trim_end_tokens v Hvt), Hvne, Hfresh, (tokens_valid v Hvt).
    cbn [negb orb]. rewrite (lower_token_lowercase_id n Hn). reflexivity.
  - (* written as a quoted string: the scanner eats the pieces of the value *)
    assert (Hns : nosep 59 (n ++ [61; 34]) = true).
    { rewrite nosep_app. rewrite (tokens_nosep 59 n tchar_59 Hnt). reflexivity. }
    assert (Epieces : pieces (n ++ 61 :: 34 :: escape_value v ++ [34]) =
                      (n ++ 61 :: 34 :: fst (split_all 59 (escape_value v ++ [34])))
                      :: snd (split_all 59 (escape_value v ++ [34]))).
    { unfold pieces. replace (n ++ 61 :: 34 :: escape_value v ++ [34]) with ((n ++ [61; 34]) ++ (escape_value v ++ [34]))
        by (rewrite <- app_assoc; reflexivity).
      rewrite (split_all_nosep _ _ Hns). cbn [fst snd]. rewrite <- app_assoc. reflexivity. }
    rewrite Epieces. cbn [app]. rewrite p_params_loop_S, Htrim.
    rewrite (split_once_app_sep 61 n _ (tokens_nosep 61 n tchar_61 Hnt)).
    cbv beta iota zeta. unfold strip_prefix_quote. rewrite N.eqb_refl.
    rewrite (scan_escape v R []). cbn [rev app].
    rewrite Hfresh. unfold valid_value at 1. cbn [forallb]. fold (valid_value (fst (split_all 59 (escape_value v ++ [34])))).
    rewrite (first_piece_valid v Hv). replace (valid_value_char 34) with true by (rewrite valid_value_char_spec; reflexivity).
    cbn [negb orb andb]. rewrite (lower_token_lowercase_id n Hn). reflexivity.
Qed.

Lemma rt_loop : forall ps pre fuel,
  Forall (fun p => lower_token (fst p) = true) pre ->
  Forall rt_param_ok ps ->
  NoDup (map fst (pre ++ ps)) ->
  (length (all_pieces ps) < fuel)%nat ->
  p_params_loop fuel (all_pieces ps) pre = Ok (pre ++ ps).
Proof.
  induction ps as [|[n v] ps IH]; intros pre fuel Hpre Hps Hnd Hfuel.
  - destruct fuel as [|fuel]; [cbn in Hfuel; lia|]. cbn [all_pieces flat_map p_params_loop]. rewrite app_nil_r. reflexivity.
  - inversion Hps as [|? ? [Hn Hv] Hps']; subst. cbn [fst snd] in Hn, Hv.
    destruct fuel as [|fuel]; [lia|].
    cbn [all_pieces flat_map] in *. fold (all_pieces ps) in *.
    rewrite rt_turn; [|exact Hn | exact Hv|].
    + replace (pre ++ (n, v) :: ps) with ((pre ++ [(n, v)]) ++ ps) in * by (rewrite <- app_assoc; reflexivity).
      apply IH; [|exact Hps' | exact Hnd|].
      * apply Forall_app. split; [exact Hpre|]. constructor; [exact Hn|constructor].
      * rewrite app_length in Hfuel. unfold pieces in Hfuel. cbn [length] in Hfuel. lia.
    + apply name_valid_fresh; [exact Hpre|exact Hn|]. rewrite map_app in Hnd. cbn [map fst] in Hnd.
      apply NoDup_remove_2 in Hnd. intros Hin. apply Hnd. apply in_or_app. left. exact Hin.
Qed.

(* split(';') of "p1;p2;...;pk" is the concatenation of the pieces of the parameters *)
Lemma pieces_rest p ps : pieces (ser_param p ++ tail_str ps) = all_pieces (p :: ps).
Proof.
  revert p. induction ps as [|p' ps IH]; intros p.
  - unfold tail_str, all_pieces. cbn [flat_map]. rewrite !app_nil_r. reflexivity.
  - unfold tail_str. cbn [flat_map]. fold (tail_str ps). cbn [app].
    rewrite pieces_app_sep, IH. reflexivity.
Qed.

(* the serialization is not changed by the trimming *)
Lemma display_value_stable v : trim_end (p_display_value v) = p_display_value v /\ p_display_value v <> [].
Proof.
  unfold p_display_value. destruct (tokens v && negb (is_empty v)) eqn:E.
  - apply andb_true_iff in E. destruct E as [Ht Hne]. split; [exact (trim_end_tokens v Ht)|].
    destruct v; [discriminate|discriminate].
  - split; [|discriminate]. change (34 :: escape_value v ++ [34]) with ((34 :: escape_value v) ++ [34]).
    apply trim_end_snoc. rewrite http_whitespace_spec. reflexivity.
Qed.

Lemma tail_str_stable ps : ps <> [] -> trim_end (tail_str ps) = tail_str ps /\ tail_str ps <> [].
Proof.
  induction ps as [|p ps IH]; intros Hne; [contradiction|].
  unfold tail_str. cbn [flat_map]. fold (tail_str ps). split; [|discriminate].
  destruct (display_value_stable (snd p)) as [Hd Hdne].
  destruct ps as [|p' ps].
  - cbn [tail_str flat_map]. rewrite app_nil_r. unfold ser_param.
    change (59 :: fst p ++ 61 :: p_display_value (snd p)) with ((59 :: fst p) ++ 61 :: p_display_value (snd p)).
    replace ((59 :: fst p) ++ 61 :: p_display_value (snd p)) with (((59 :: fst p) ++ [61]) ++ p_display_value (snd p))
      by (rewrite <- app_assoc; reflexivity).
    apply trim_end_app_stable; assumption.
  - destruct IH as [IH1 IH2]; [discriminate|].
    change (59 :: ser_param p ++ tail_str (p' :: ps)) with ((59 :: ser_param p) ++ tail_str (p' :: ps)).
    apply trim_end_app_stable; assumption.
Qed.

Lemma subtype_tail_stable st ps :
  tokens st = true -> is_empty st = false -> trim_end (st ++ tail_str ps) = st ++ tail_str ps /\ st ++ tail_str ps <> [].
Proof.
  intros Ht Hne. split; [|destruct st; [discriminate|discriminate]].
  destruct ps as [|p ps].
  - cbn [tail_str flat_map]. rewrite app_nil_r. exact (trim_end_tokens st Ht).
  - destruct (tail_str_stable (p :: ps)) as [H1 H2]; [discriminate|]. apply trim_end_app_stable; assumption.
Qed.

Lemma p_parse_display m :
  lower_token (m_type m) = true -> lower_token (m_subtype m) = true ->
  Forall rt_param_ok (m_params m) -> NoDup (map fst (m_params m)) ->
  p_parse (p_display m) = Ok (Some m).
Proof.
  destruct m as [t st ps]. cbn [m_type m_subtype m_params]. intros Ht Hst Hps Hnd.
  unfold p_display. cbn [m_type m_subtype m_params].
  pose proof (lower_token_tokens t Ht) as Htt. pose proof (lower_token_tokens st Hst) as Hstt.
  pose proof (lower_token_nonempty t Ht) as Htne. pose proof (lower_token_nonempty st Hst) as Hstne.
  destruct (lower_token_head t Ht) as [c0 [t' [Et Hc0]]].
  destruct (subtype_tail_stable st ps Hstt Hstne) as [Hstab Hstabne].
  assert (Etrim : trim_matches (t ++ 47 :: st ++ tail_str ps) = t ++ 47 :: st ++ tail_str ps).
  { unfold trim_matches.
    replace (trim_start (t ++ 47 :: st ++ tail_str ps)) with (t ++ 47 :: st ++ tail_str ps)
      by (rewrite Et; cbn [app]; rewrite (trim_start_head c0 _ (tchar_not_ws c0 Hc0)); reflexivity).
    replace (t ++ 47 :: st ++ tail_str ps) with ((t ++ [47]) ++ (st ++ tail_str ps)) by (rewrite <- app_assoc; reflexivity).
    apply trim_end_app_stable; assumption. }
  unfold p_parse. rewrite Etrim.
  rewrite (split_once_app_sep 47 t _ (tokens_nosep 47 t tchar_47 Htt)).
  rewrite Htt, Htne. cbn [negb andb].
  rewrite (lower_token_lowercase_id t Ht).
  destruct ps as [|p ps].
  - cbn [tail_str flat_map]. rewrite app_nil_r.
    rewrite (split_once_nosep 59 st (tokens_nosep 59 st tchar_59 Hstt)).
    rewrite (trim_end_tokens st Hstt), Hstt, Hstne. cbn [negb andb bind].
    rewrite (lower_token_lowercase_id st Hst). reflexivity.
  - unfold tail_str. cbn [flat_map app]. fold (tail_str ps).
    rewrite (split_once_app_sep 59 st _ (tokens_nosep 59 st tchar_59 Hstt)).
    rewrite (trim_end_tokens st Hstt), Hstt, Hstne. cbn [negb andb].
    rewrite (lower_token_lowercase_id st Hst).
    unfold p_parse_parameters.
    pose proof (pieces_rest p ps) as Hpieces. unfold pieces in Hpieces.
    destruct (split_all 59 (ser_param p ++ tail_str ps)) as [q qs]. cbn [fst snd] in Hpieces.
    rewrite Hpieces.
    rewrite (rt_loop (p :: ps) [] (S (S (length qs)))); [reflexivity|constructor|exact Hps|exact Hnd|].
    rewrite <- Hpieces. cbn [length]. lia.
Qed.

(* the serialization of a &str-built value is a &str *)
Lemma escape_value_usv v : usv_list v -> usv_list (escape_value v).
Proof.
  unfold usv_list. induction v as [|c v IH]; intros H; [constructor|].
  inversion H as [|? ? Hc Hv]; subst. rewrite escape_value_cons. apply Forall_app. split; [|exact (IH Hv)].
  destruct ((c =? 34) || (c =? 92)).
  - constructor; [exact usv_92|]. constructor; [exact Hc|constructor].
  - constructor; [exact Hc|constructor].
Qed.

Lemma p_display_usv m : usv_mime m -> usv_list (p_display m).
Proof.
  intros [Ht [Hst Hps]]. unfold p_display, usv_list in *. apply Forall_app. split; [exact Ht|].
  constructor; [unfold is_usv; lia|]. apply Forall_app. split; [exact Hst|].
  unfold usv_params in Hps. induction Hps as [|p ps [Hn Hv] _ IH]; [constructor|].
  unfold tail_str. cbn [flat_map]. fold (tail_str ps). constructor; [exact usv_59|].
  apply Forall_app. split; [|exact IH]. unfold ser_param. apply Forall_app. split; [exact Hn|].
  constructor; [unfold is_usv; lia|]. unfold p_display_value.
  destruct (tokens (snd p) && negb (is_empty (snd p))); [exact Hv|].
  constructor; [unfold is_usv; lia|]. apply Forall_app. split; [exact (escape_value_usv _ Hv)|].
  constructor; [unfold is_usv; lia|constructor].
Qed.

(* every value in normal form, whether or not it came out of the parser, is read back from its
   serialization: the normal form of C19_normal is sufficient for the round trip *)
Theorem display_parse_wf m :
  usv_mime m ->
  lower_http_token (m_type m) -> lower_http_token (m_subtype m) ->
  Forall (fun p => lower_http_token (fst p) /\ value_wf (snd p)) (m_params m) ->
  NoDup (map fst (m_params m)) ->
  exists d, display m = Ok d /\ parse d = Ok (Some m).
Proof.
  intros Hu Ht Hst Hall Hnd. exists (p_display m). split; [exact (display_spec m Hu)|].
  rewrite (parse_spec _ (p_display_usv m Hu)).
  apply p_parse_display; [apply lower_token_spec; exact Ht|apply lower_token_spec; exact Hst| |exact Hnd].
  eapply Forall_impl; [|exact Hall]. intros p [Hn Hv]. split; [apply lower_token_spec; exact Hn|apply value_ok_spec; exact Hv].
Qed.

(* C19_rt on the model: a parse result is in normal form *)
Theorem parse_display_rt s m :
  usv_list s -> parse s = Ok (Some m) -> exists d, display m = Ok d /\ parse d = Ok (Some m).
Proof.
  intros Hs H. destruct (parse_normal s m Hs H) as (Ht & Hst & Hall & Hnd).
  apply display_parse_wf; try assumption.
  rewrite (parse_spec s Hs) in H. exact (p_parse_usv s m Hs H).
Qed.
