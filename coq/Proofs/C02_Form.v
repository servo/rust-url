(* Proofs/C02_Form.v - the link between the form_urlencoded serializer and the query state of the URL parser.
   Url::query_pairs_mut / Url::parse_with_params write the output of form_urlencoded::Serializer straight into
   the URL's serialization, without passing it through the parser's query state.  The result is a fixpoint of
   re-parsing only if the query state leaves every byte the serializer can emit alone.  Both sides are tables
   regenerated from the Rust sources (T_FORM_UNCHANGED, T_FORM_SPACE_OUT, T_ENC_TABLE, the separators; T_QUERY,
   T_SPECIAL_QUERY), so a change of either side alone breaks the sweep below.
   (1) form_query_clean: the sweep.
   (2) qpm_Canon: a query_pairs_mut session on a record of one of the four canonical forms yields a record of a
       canonical form (L2 for query_pairs_mut). *)
From RU Require Import Proofs.C15_Table Proofs.C15_Bser Proofs.C15_Ser Proofs.C15_Url.
From RU Require Import Base.Prelude Base.Utf8 Base.Utf8Facts Base.Outcome_c15 Model.AsciiSet Gen.Tables
  Model.PercentEncoding Model.HostT Model.UrlRecord Model.Parser Model.Setters Model.WF Model.FormUrlencoded
  Model.QueryPairs
  Proofs.ListN Proofs.C14_Set Proofs.C14_Enc Proofs.C02_Enc Proofs.C02_Parts Proofs.C02_Opaque Proofs.C02_Path
  Proofs.C02_PathL1 Proofs.C02_Reach Proofs.C02_AuthParts Proofs.C02_Auth Proofs.C02_AuthWf Proofs.C02_PathSp
  Proofs.C02_AuthSp Proofs.C02_AuthMain Proofs.C02_SetQF Proofs.C02_Canon Proofs.C02_SetPort.
Open Scope N_scope.
Open Scope list_scope.

(* 1. the sweep *)
(* every byte the serializer code can push into its String: a byte of the unchanged class as it is, the
   replacement of a space, the three bytes percent_encode_byte cuts out of its table, the two separators *)
Definition form_emits (c : N) : bool :=
  byte_serialized_unchanged c || memb c T_FORM_SPACE_OUT || memb c T_ENC_TABLE
  || (c =? T_FORM_PUSH_SEP) || (c =? T_FORM_PUSH_EQ).

(* what the query state of the URL parser does with a byte of its input: it is stored as it is (in neither
   percent-encode set, for the setter context also not '#'), it is not removed on the way in (tab / LF / CR),
   and it is printable ASCII *)
Definition query_leaves_alone (c : N) : bool :=
  kept T_QUERY c && kept T_SPECIAL_QUERY c && negb (c =? 35) && negb (is_tnl c) && (32 <? c) && (c <? 127).

Lemma form_emits_small :
  forallb (fun x => x <? 256) T_FORM_UNCHANGED && forallb (fun x => x <? 256) T_FORM_SPACE_OUT
  && forallb (fun x => x <? 256) T_ENC_TABLE && (T_FORM_PUSH_SEP <? 256) && (T_FORM_PUSH_EQ <? 256) = true.
Proof. vm_compute. reflexivity. Qed.

Lemma form_emits_lt c : form_emits c = true -> c < 256.
Proof.
  pose proof form_emits_small as S.
  apply andb_true_iff in S. destruct S as [S S5]. apply andb_true_iff in S. destruct S as [S S4].
  apply andb_true_iff in S. destruct S as [S S3]. apply andb_true_iff in S. destruct S as [S1 S2].
  rewrite forallb_forall in S1, S2, S3.
  unfold form_emits, byte_serialized_unchanged. intros H.
  destruct (memb c T_FORM_UNCHANGED) eqn:E1; [apply memb_spec in E1; apply S1 in E1; lia|].
  destruct (memb c T_FORM_SPACE_OUT) eqn:E2; [apply memb_spec in E2; apply S2 in E2; lia|].
  destruct (memb c T_ENC_TABLE) eqn:E3; [apply memb_spec in E3; apply S3 in E3; lia|].
  cbn [orb] in H. lia.
Qed.

Lemma form_query_sweep : all_below 256 (fun c => implb (form_emits c) (query_leaves_alone c)) = true.
Proof. vm_compute. reflexivity. Qed.

Theorem form_query_clean c : form_emits c = true -> query_leaves_alone c = true.
Proof.
  intros H. pose proof (all_below_spec 256 _ form_query_sweep c (form_emits_lt c H)) as K. cbv beta in K.
  rewrite H in K. exact K.
Qed.

(* the explicit reading of the class: the byte_serialized_unchanged set, '+', '%', the upper-case hex digits,
   '&', '=' *)
Definition is_hex_upper (c : N) : bool := ((48 <=? c) && (c <=? 57)) || ((65 <=? c) && (c <=? 70)).
Lemma form_emits_explicit_sweep : all_below 256 (fun c => Bool.eqb (form_emits c)
    (byte_serialized_unchanged c || (c =? 43) || (c =? 37) || is_hex_upper c || (c =? 38) || (c =? 61))) = true.
Proof. vm_compute. reflexivity. Qed.

Theorem form_query_clean_explicit c :
  byte_serialized_unchanged c = true \/ c = 43 \/ c = 37 \/ is_hex_upper c = true \/ c = 38 \/ c = 61 ->
  should_encode T_QUERY c = false /\ should_encode T_SPECIAL_QUERY c = false /\ c <> 35 /\ is_tnl c = false
  /\ 32 < c /\ c < 127.
Proof.
  intros H.
  assert (c < 256) as Hc.
  { destruct H as [H|H].
    - apply form_emits_lt. unfold form_emits. rewrite H. reflexivity.
    - unfold is_hex_upper in H. lia. }
  assert (form_emits c = true) as He.
  { pose proof (all_below_spec 256 _ form_emits_explicit_sweep c Hc) as K. cbv beta in K. apply Bool.eqb_prop in K.
    rewrite K. unfold is_hex_upper in *.
    destruct H as [->|[->|[->|[H|[->| ->]]]]]; try reflexivity.
    rewrite H. rewrite !orb_true_r. reflexivity. }
  pose proof (form_query_clean c He) as Q. unfold query_leaves_alone, kept in Q.
  repeat (apply andb_true_iff in Q; destruct Q as [Q ?]).
  repeat match goal with X : negb _ = true |- _ => apply negb_true_iff in X end.
  repeat split; try assumption; lia.
Qed.

(* the alphabet in which C15 states the output of the serializer is inside the class *)
Lemma form_alpha_emits c : form_alpha c = true -> form_emits c = true.
Proof.
  unfold form_alpha, val_alpha. rewrite <- unchanged_is_spec. intros H. unfold form_emits.
  destruct (byte_serialized_unchanged c) eqn:E1; [reflexivity|]. cbn [orb] in H.
  assert (c = 43 \/ c = 37 \/ c = 38 \/ c = 61) as D by lia.
  destruct D as [->|[->|[->| ->]]]; vm_compute; reflexivity.
Qed.

Lemma form_alpha_kept st c : form_alpha c = true -> kept (query_set st) c = true.
Proof.
  intros H. pose proof (form_query_clean c (form_alpha_emits c H)) as Q. unfold query_leaves_alone in Q.
  repeat (apply andb_true_iff in Q; destruct Q as [Q ?]).
  unfold query_set. destruct (st_is_special st); assumption.
Qed.

(* 2. a query_pairs_mut session on the common shape *)
Lemma Forall_kept_clean S l : Forall (fun c => kept S c = true) l <-> clean S l = true.
Proof. unfold clean. rewrite forallb_forall, Forall_forall. tauto. Qed.

Section QpmShape.
Variable dbg : bool.
Variables (pre : list N) (se ue hs he : N) (hi : host_internal) (pt : option N) (ps : N).
Notation U := (qf_url pre se ue hs he hi pt ps).

Lemma path_end_qf q f : path_end (U q f) = nlen pre.
Proof.
  unfold path_end, qf_url. cbn [query_start fragment_start ser].
  destruct q as [x|]; cbn [qf_qs]; [reflexivity|].
  destruct f as [y|]; cbn [qf_fs qf_qtext]; [change (nlen (@nil N)) with 0; apply N.add_0_r|].
  unfold qf_text. cbn [qf_qtext qf_ftext app]. rewrite app_nil_r. reflexivity.
Qed.

Lemma frag_tail_qf q f : frag_tail (U q f) = qf_ftext f.
Proof.
  unfold frag_tail, qf_url. cbn [fragment_start ser]. destruct f as [y|]; cbn [qf_fs qf_ftext]; [|reflexivity].
  f_equal. rewrite <- nlen_app. unfold qf_text. cbn [qf_ftext]. rewrite app_assoc.
  rewrite nskipn_app_add. reflexivity.
Qed.

Lemma old_query_qf q f : old_query (U q f) = match q with Some x => x | None => [] end.
Proof.
  unfold old_query, body_end, qf_url. cbn [query_start fragment_start ser]. destruct q as [x|]; cbn [qf_qs]; [|reflexivity].
  unfold qf_text. cbn [qf_qtext].
  replace (pre ++ (63 :: x) ++ qf_ftext f) with (pre ++ 63 :: (x ++ qf_ftext f)) by reflexivity.
  rewrite nskipn_app_add.
  destruct f as [y|]; cbn [qf_fs qf_ftext qf_qtext].
  - replace (nlen pre + nlen (63 :: x) - (nlen pre + 1)) with (nlen x) by (rewrite nlen_cons; lia).
    apply nfirstn_app_len.
  - rewrite app_nil_r.
    replace (nlen (pre ++ 63 :: x) - (nlen pre + 1)) with (nlen x) by (rewrite nlen_app, nlen_cons; lia).
    apply nfirstn_all. lia.
Qed.

Lemma edited_qf q f nq : edited (U q f) (pre ++ 63 :: nq) = U (Some nq) f.
Proof.
  unfold edited. rewrite path_end_qf, frag_tail_qf. unfold qf_url.
  cbn [scheme_end username_end host_start host_end hosti port path_start fragment_start ser qf_qs].
  f_equal.
  - unfold qf_text. cbn [qf_qtext]. rewrite <- app_assoc. reflexivity.
  - destruct f as [y|]; cbn [qf_fs]; [|reflexivity]. f_equal. cbn [qf_qtext]. apply nlen_app.
Qed.

(* a text that agrees with pre ++ ... on the first |pre| bytes, has '?' next and is at least that long *)
Lemma split_at_qmark str' X : nlen pre + 1 <= nlen str' -> nfirstn (nlen pre) str' = nfirstn (nlen pre) (pre ++ X) ->
  nnth str' (nlen pre) = Some 63 -> str' = pre ++ 63 :: nskipn (nlen pre + 1) str'.
Proof.
  intros Hl Hp Hq. rewrite nfirstn_app_len in Hp.
  rewrite <- (nfirstn_nskipn (nlen pre) str') at 1. rewrite Hp. f_equal.
  replace (nlen pre + 1) with (1 + nlen pre) by lia. rewrite <- (nskipn_nskipn 1 (nlen pre) str').
  rewrite <- (nfirstn_nskipn (nlen pre) str') in Hq. rewrite Hp in Hq.
  destruct (nskipn (nlen pre) str') as [|c r] eqn:E.
  - exfalso. assert (nlen (nskipn (nlen pre) str') = nlen str' - nlen pre) as L by (apply nlen_nskipn).
    rewrite E in L. unfold nlen at 1 in L. cbn [length] in L. lia.
  - rewrite nnth_app_at in Hq. inversion Hq; subst c. reflexivity.
Qed.

Theorem qpm_session_qf q f ops : wf_b (U q f) = true -> ascii (ser (U q f)) -> Forall op_ok ops ->
  exists nq, query_pairs_session dbg (U q f) ops = Some (U (Some nq) f)
    /\ (forall P : N -> Prop, (forall c, form_alpha c = true -> P c) ->
        Forall P (match q with Some x => x | None => [] end) -> Forall P nq).
Proof.
  intros Hwf Ha Hops.
  destruct (session_shape dbg (U q f) Hwf Ha ops Hops) as (str' & H1 & F1 & F2 & F3 & _ & F5).
  rewrite path_end_qf in *. rewrite old_query_qf in F5.
  exists (nskipn (nlen pre + 1) str'). split; [|exact F5].
  rewrite H1. f_equal.
  rewrite (split_at_qmark str' (qf_text q f) F1 F2 F3) at 1. apply edited_qf.
Qed.
End QpmShape.

(* 3. L2 for query_pairs_mut on the four canonical forms *)
Section QpmCanon.
Variable dbg : bool.
Variable hp hpo : list N -> result host.
Variable hd : host -> list N.
Hypothesis HRT : HostRT hp hpo hd.

Lemma new_query_clean st q nq : opt_clean (query_set st) q ->
  (forall P : N -> Prop, (forall c, form_alpha c = true -> P c) ->
     Forall P (match q with Some x => x | None => [] end) -> Forall P nq) ->
  opt_clean (query_set st) (Some nq).
Proof.
  intros Hq HP. cbn [opt_clean]. apply Forall_kept_clean. apply HP; [exact (form_alpha_kept st)|].
  destruct q as [x|]; [apply Forall_kept_clean; exact Hq | constructor].
Qed.

Theorem qpm_Canon u ops u' : Canon hp hpo hd u -> Forall op_ok ops ->
  query_pairs_session dbg u ops = Some u' -> nlen (ser u') <= U32_MAX_P -> Canon hp hpo hd u'.
Proof.
  intros C Hops. destruct (Canon_fixpoint dbg hp hpo hd HRT u C) as (_ & Hwf & Ha).
  destruct (Canon_cases hp hpo hd u C) as [(sch & P & q & f & K & ->) | [(sch & segs & last & q & f & K & ->) | (st & sch & ui & h & pt & p & q & f & Hnf & K & Kp & ->)]].
  - rewrite opaque_url_qf in *.
    destruct (qpm_session_qf dbg _ _ _ _ _ _ _ _ q f ops Hwf Ha Hops) as (nq & E & HP). rewrite E.
    intros E' Hb. inversion E'; subst u'. clear E'. rewrite <- opaque_url_qf in *.
    apply Canon_opaque. apply (opaque_ok_qf sch P q f); try assumption.
    + exact (new_query_clean STNotSpecial q nq (ok_q _ _ _ _ K) HP).
    + exact (ok_f _ _ _ _ K).
    + intros E0. discriminate E0.
  - rewrite noauth_url_qf in *.
    destruct (qpm_session_qf dbg _ _ _ _ _ _ _ _ q f ops Hwf Ha Hops) as (nq & E & HP). rewrite E.
    intros E' Hb. inversion E'; subst u'. clear E'. rewrite <- noauth_url_qf in *.
    apply Canon_noauth. apply (noauth_ok_qf sch segs last q f); try assumption.
    + exact (new_query_clean STNotSpecial q nq (nk_q _ _ _ _ _ K) HP).
    + exact (nk_f _ _ _ _ _ K).
  - rewrite auth_url_qf in *.
    destruct (qpm_session_qf dbg _ _ _ _ _ _ _ _ q f ops Hwf Ha Hops) as (nq & E & HP). rewrite E.
    intros E' Hb. inversion E'; subst u'. clear E'. rewrite <- auth_url_qf in *.
    apply (Canon_auth_st hp hpo hd st sch ui h pt p (Some nq) f Hnf); [|exact Kp].
    apply (auth_ok_qf hp hpo hd st sch ui h pt p q f); try assumption.
    + apply (new_query_clean _ q nq); [exact (ak_q _ _ _ _ _ _ _ _ _ _ _ K) | exact HP].
    + exact (ak_f _ _ _ _ _ _ _ _ _ _ _ K).
Qed.
End QpmCanon.
