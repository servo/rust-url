(* Proofs/C07_Setters.v - facts about the model of url::quirks that are clauses of the Standard's
   attribute setters: the single leading '?' / '#', the text of the protocol value up to the first
   ':', "cannot have a username/password/port", the legality of scheme changes. *)
From RU Require Import Base.Prelude Base.Utf8 Model.AsciiSet Gen.Tables Model.PercentEncoding
  Model.HostT Model.UrlRecord Model.Parser Model.Setters Model.KnownC01 Model.KnownC07 Spec.Whatwg
  Proofs.C06_Atomic Proofs.C07_Defs.

(* search and hash: the empty value removes the component, one leading marker is dropped *)

(* what both sides hand to the query / fragment machinery: nothing for the empty value, otherwise
   the value with a single leading marker removed, if any *)
Definition setter_arg (mark : N) (v : list N) : option (list N) :=
  match v with
  | [] => None
  | c :: r => Some (if c =? mark then r else v)
  end.

Lemma setter_arg_usv mark v : usv_list v ->
  match setter_arg mark v with Some x => usv_list x | None => True end.
Proof.
  intros H. destruct v as [|c r]; [exact I|]. cbn [setter_arg].
  destruct (c =? mark); [inversion H; assumption|exact H].
Qed.

Section SearchHash.
Variable dbg : bool.

Lemma q_set_search_arg u v : q_set_search dbg u v = Setters.set_query dbg u (setter_arg 63 v).
Proof.
  destruct v as [|c r]; [reflexivity|]. cbn [setter_arg].
  destruct (c =? 63) eqn:E.
  - apply N.eqb_eq in E. subst c. reflexivity.
  - unfold q_set_search. destruct c as [|p]; [reflexivity|].
    do 6 (try (destruct p as [p|p|]; try reflexivity)).
    cbn in E. discriminate E.
Qed.

Lemma q_set_hash_arg u v : q_set_hash dbg u v = Setters.set_fragment dbg u (setter_arg 35 v).
Proof.
  destruct v as [|c r]; [reflexivity|]. cbn [setter_arg].
  destruct (c =? 35) eqn:E.
  - apply N.eqb_eq in E. subst c. reflexivity.
  - unfold q_set_hash. destruct c as [|p]; [reflexivity|].
    do 6 (try (destruct p as [p|p|]; try reflexivity)).
    cbn in E. discriminate E.
Qed.

(* exactly one leading marker is dropped: "?x" is treated as "x" whenever "x" is itself a value
   that is not empty and does not start with the marker *)
Lemma setter_arg_strip mark c x : c <> mark ->
  setter_arg mark (mark :: c :: x) = setter_arg mark (c :: x).
Proof.
  intros Hc. cbn [setter_arg]. rewrite N.eqb_refl.
  destruct (c =? mark) eqn:E; [apply N.eqb_eq in E; contradiction|reflexivity].
Qed.
End SearchHash.

Section SearchHashSpec.
Variable shp : bool -> list N -> option spec_host.

(* the Standard's search / hash setters factor through the same function *)
Lemma spec_set_search_arg su v :
  spec_set shp SetSearch su v =
  match setter_arg 63 v with
  | None => SetTo (potentially_strip_trailing_spaces (Whatwg.set_query su None))
  | Some inp => after_override (spec_basic_url_parse_override shp inp (Whatwg.set_query su (Some [])) StQuery)
  end.
Proof. destruct v as [|c r]; reflexivity. Qed.

Lemma spec_set_hash_arg su v :
  spec_set shp SetHash su v =
  match setter_arg 35 v with
  | None => SetTo (potentially_strip_trailing_spaces (Whatwg.set_fragment su None))
  | Some inp => after_override (spec_basic_url_parse_override shp inp (Whatwg.set_fragment su (Some [])) StFragment)
  end.
Proof. destruct v as [|c r]; reflexivity. Qed.
End SearchHashSpec.

(* protocol: everything from the first ':' on is ignored *)

Lemma find_byte_aux_take l : forall i,
  match find_byte_aux 58 l i with
  | Some j => exists k, j = i + k /\ nfirstn k l = take_until_colon l
  | None => take_until_colon l = l
  end.
Proof.
  induction l as [|x r IH]; intros i; cbn [find_byte_aux take_until_colon]; [reflexivity|].
  destruct (x =? 58) eqn:E.
  - exists 0. split; [lia|reflexivity].
  - specialize (IH (i + 1)). destruct (find_byte_aux 58 r (i + 1)) as [j|].
    + destruct IH as (k & Hj & Hk). exists (k + 1). split; [lia|].
      unfold nfirstn in *. replace (N.to_nat (k + 1)) with (S (N.to_nat k)) by lia.
      cbn [firstn]. rewrite Hk. reflexivity.
    + rewrite IH. reflexivity.
Qed.

Lemma protocol_value_cut v :
  match find_byte 58 v with Some i => nfirstn i v | None => v end = take_until_colon v.
Proof.
  unfold find_byte. pose proof (find_byte_aux_take v 0) as H.
  destruct (find_byte_aux 58 v 0) as [j|].
  - destruct H as (k & Hj & Hk). replace j with k by lia. exact Hk.
  - symmetry. exact H.
Qed.

Lemma take_until_colon_app a b : memb 58 a = false -> take_until_colon (a ++ 58 :: b) = a.
Proof.
  induction a as [|x a IH]; intros H; cbn [app take_until_colon].
  - rewrite N.eqb_refl. reflexivity.
  - cbn [memb] in H. apply orb_false_iff in H. destruct H as [Hx Ha].
    rewrite N.eqb_sym in Hx. rewrite Hx, (IH Ha). reflexivity.
Qed.

Lemma take_until_colon_none a : memb 58 a = false -> take_until_colon a = a.
Proof.
  induction a as [|x a IH]; intros H; cbn [take_until_colon]; [reflexivity|].
  cbn [memb] in H. apply orb_false_iff in H. destruct H as [Hx Ha].
  rewrite N.eqb_sym in Hx. rewrite Hx, (IH Ha). reflexivity.
Qed.

(* username, password, port: "cannot have a username/password/port" *)

Ltac walk H := repeat (at_step H; try discriminate).

Section Credentials.
Variable dbg : bool.

Lemma set_username_errunit u v u' :
  Setters.set_username dbg u v = Some (u', SErrUnit) <-> cannot_have_credentials_or_port u = Some true /\ u' = u.
Proof.
  split.
  - intros H. unfold Setters.set_username in H.
    destruct (cannot_have_credentials_or_port u) as [[|]|] eqn:Ec; cbn [bindo] in H.
    + inversion H. auto.
    + exfalso. walk H.
    + discriminate H.
  - intros [Hc ->]. unfold Setters.set_username. rewrite Hc. reflexivity.
Qed.

Lemma set_password_errunit u pw u' :
  Setters.set_password dbg u pw = Some (u', SErrUnit) <-> cannot_have_credentials_or_port u = Some true /\ u' = u.
Proof.
  split.
  - intros H. unfold Setters.set_password in H.
    destruct (cannot_have_credentials_or_port u) as [[|]|] eqn:Ec; cbn [bindo] in H.
    + inversion H. auto.
    + exfalso. walk H.
    + discriminate H.
  - intros [Hc ->]. unfold Setters.set_password. rewrite Hc. reflexivity.
Qed.

Lemma q_set_port_errunit u v u' :
  q_set_port dbg u v = Some (u', SErrUnit) <->
  u' = u /\ (cannot_have_credentials_or_port u = Some true
             \/ (cannot_have_credentials_or_port u = Some false
                 /\ exists sc e, scheme u = Some sc
                                 /\ parse_port CSetter (default_port sc) (input_new_no_trim v) = PErr e)).
Proof.
  split.
  - intros H. unfold q_set_port in H.
    destruct (cannot_have_credentials_or_port u) as [[|]|] eqn:Ec; cbn [bindo] in H.
    + inversion H. auto.
    + destruct (scheme u) as [sc|] eqn:Es; cbn [bindo] in H; [|discriminate H].
      destruct (parse_port CSetter (default_port sc) (input_new_no_trim v)) as [[p rem]|e|] eqn:Ep.
      * exfalso. walk H.
      * inversion H. split; [reflexivity|]. right. split; [reflexivity|]. exists sc, e. auto.
      * discriminate H.
    + discriminate H.
  - intros [-> [Hc|(Hc & sc & e & Hs & Hp)]]; unfold q_set_port; rewrite Hc; cbn [bindo]; [reflexivity|].
    rewrite Hs. cbn [bindo]. rewrite Hp. reflexivity.
Qed.
End Credentials.

(* the model's test has the Standard's three disjuncts: host null, empty host, scheme "file".
   (rust-url represents the empty host of a non-special URL as "no host"; both fall under the test.) *)
Definition host_null_or_empty_corr (h : option host) (sh : option spec_host) : Prop :=
  match h with
  | None => sh = None \/ sh = Some SEmpty
  | Some (HDomain []) => sh = Some SEmpty
  | Some _ => match sh with Some SEmpty | None => False | Some _ => True end
  end.

(* protocol: which scheme changes are carried out *)

(* the test of Url::set_scheme on: old and new scheme type, has_authority(), has_host() *)
Definition protocol_rejects (ost nst : scheme_type) (ha hh : bool) : bool :=
  (st_is_special nst && negb (st_is_special ost)) || (negb (st_is_special nst) && st_is_special ost)
  || (st_is_file nst && ha) || (negb hh && st_is_special nst).

(* scheme state with a state override, steps 2.1.1-2.1.3 of the Standard: special-ness differs;
   credentials or port and the new scheme is "file"; the old scheme is "file" and the host is empty *)
Definition standard_rejects (ost nst : scheme_type) (cred_or_port host_empty : bool) : bool :=
  negb (Bool.eqb (st_is_special ost) (st_is_special nst))
  || (cred_or_port && st_is_file nst) || (st_is_file ost && host_empty).

(* an assignment that reports an error leaves the record as it was (from Proofs/C06_Atomic) *)
Theorem quirks_setters_ignore_atomically : forall dbg hp ho hd u v u' st, st <> SOk ->
  (q_set_protocol dbg u v = Some (u', st) -> u' = u)
  /\ (q_set_username dbg u v = Some (u', st) -> u' = u)
  /\ (q_set_password dbg u v = Some (u', st) -> u' = u)
  /\ (q_set_host dbg hp ho hd u v = Some (u', st) -> u' = u)
  /\ (q_set_hostname dbg hp ho hd u v = Some (u', st) -> u' = u)
  /\ (q_set_port dbg u v = Some (u', st) -> u' = u).
Proof.
  intros dbg hp ho hd u v u' st Hst. repeat split; intros H.
  - exact (q_set_protocol_atomic dbg u v u' st H Hst).
  - exact (q_set_username_atomic dbg u v u' st H Hst).
  - exact (q_set_password_atomic dbg u v u' st H Hst).
  - exact (q_set_host_atomic dbg hp ho hd u v u' st H Hst).
  - exact (q_set_hostname_atomic dbg hp ho hd u v u' st H Hst).
  - exact (q_set_port_atomic dbg u v u' st H Hst).
Qed.
