(* Proofs/C01_Override.v - a UTF-8 encoding override does not change the parse; the input
   preprocessing of the parser is "strip leading/trailing C0-or-space, then ignore tab/LF/CR". *)
From RU Require Import Base.Prelude Base.Utf8 Model.HostT Model.UrlRecord Model.Parser.

Section Override.
Variable dbg : bool.
Variable host_parse : list N -> result host.
Variable host_parse_opaque : list N -> result host.
Variable host_display : host -> list N.

Notation U8 := (Some utf8_encode).
Notation NoO := (@None (list N -> list N)).

Lemma query_enc_utf8 scheme : query_enc U8 scheme = query_enc NoO scheme.
Proof. unfold query_enc. destruct (_ || _); reflexivity. Qed.

Lemma parse_query_utf8 ctx st se ser l :
  parse_query U8 ctx st se ser l = parse_query NoO ctx st se ser l.
Proof. unfold parse_query. rewrite query_enc_utf8. reflexivity. Qed.

Lemma parse_query_and_fragment_utf8 ctx st se ser l :
  parse_query_and_fragment U8 ctx st se ser l = parse_query_and_fragment NoO ctx st se ser l.
Proof.
  unfold parse_query_and_fragment. destruct (inp_next l) as [[c r]|]; [|reflexivity].
  destruct (c =? 35); [reflexivity|]. destruct (c =? 63); [|reflexivity].
  rewrite parse_query_utf8. reflexivity.
Qed.

Lemma with_query_and_fragment_utf8 ctx st se ue hs he hi port ps ser rem :
  with_query_and_fragment U8 ctx st se ue hs he hi port ps ser rem
  = with_query_and_fragment NoO ctx st se ue hs he hi port ps ser rem.
Proof.
  unfold with_query_and_fragment.
  destruct (if ps =? se + 1 then _ else _) as [[s1 p1]| |]; cbn [pbind]; try reflexivity.
  rewrite parse_query_and_fragment_utf8. reflexivity.
Qed.

Lemma after_double_slash_utf8 ctx st se ser l :
  after_double_slash dbg host_parse host_parse_opaque host_display U8 ctx st se ser l
  = after_double_slash dbg host_parse host_parse_opaque host_display NoO ctx st se ser l.
Proof.
  unfold after_double_slash.
  destruct (parse_userinfo st (ser ++ [47; 47]) l) as [[[s1 ue] rem]| |]; cbn [pbind]; try reflexivity.
  destruct (to_u32 (nlen s1)) as [hs| |]; cbn [pbind]; try reflexivity.
  destruct (parse_host_and_port _ _ _ _ _ _ _ _) as [[[[[s2 he] hi] port] rem2]| |]; cbn [pbind]; try reflexivity.
  destruct (hi_eqb hi HI_None && _); [reflexivity|].
  destruct (to_u32 (nlen s2)) as [ps| |]; cbn [pbind]; try reflexivity.
  destruct (parse_path_start dbg ctx st true s2 rem2) as [[[s3 hh] rem3]| |]; cbn [pbind]; try reflexivity.
  apply with_query_and_fragment_utf8.
Qed.

Lemma parse_non_special_utf8 ctx st se ser l :
  parse_non_special dbg host_parse host_parse_opaque host_display U8 ctx st se ser l
  = parse_non_special dbg host_parse host_parse_opaque host_display NoO ctx st se ser l.
Proof.
  unfold parse_non_special. destruct (inp_split_prefix_str s_ss l); [apply after_double_slash_utf8|].
  destruct (to_u32 (nlen ser)) as [ps| |]; cbn [pbind]; try reflexivity.
  destruct (match inp_split_prefix_char 47 l with Some _ => _ | None => _ end) as [[s1 rem]| |]; cbn [pbind]; try reflexivity.
  apply with_query_and_fragment_utf8.
Qed.

Ltac same_head :=
  match goal with
  | |- pbind ?X _ = pbind ?X _ =>
      let a := fresh "a" in
      destruct X as [a| |]; cbn [pbind]; try reflexivity;
      repeat match goal with p : (_ * _)%type |- _ => destruct p end
  end.

Lemma parse_relative_utf8 ctx st base l :
  parse_relative dbg host_parse host_parse_opaque host_display U8 ctx st base l
  = parse_relative dbg host_parse host_parse_opaque host_display NoO ctx st base l.
Proof.
  unfold parse_relative. destruct (inp_split_first l) as [[c|] after]; [|reflexivity].
  destruct (c =? 63).
  { rewrite parse_query_and_fragment_utf8. reflexivity. }
  destruct (c =? 35); [reflexivity|].
  destruct ((c =? 47) || _).
  { destruct (inp_count_matching _ l) as [slashes remaining].
    destruct (2 <=? slashes).
    - same_head.
      destruct (negb (st_is_special st)).
      + destruct (inp_split_prefix_str s_ss l); apply after_double_slash_utf8.
      + apply after_double_slash_utf8.
    - same_head. apply with_query_and_fragment_utf8. }
  same_head. same_head. apply with_query_and_fragment_utf8.
Qed.

Lemma parse_file_utf8 ctx st base l :
  parse_file dbg host_parse host_display U8 ctx st base l
  = parse_file dbg host_parse host_display NoO ctx st base l.
Proof.
  unfold parse_file. destruct (inp_split_first l) as [first after_first].
  destruct (match first with Some c => is_slash_or_bslash c | None => false end).
  - destruct (inp_split_first after_first) as [next after_next].
    destruct (match next with Some c => is_slash_or_bslash c | None => false end).
    + destruct (parse_file_host host_parse host_display s_file_css after_next) as [[[[s1 flag] hi] rem]| |]; cbn [pbind]; try reflexivity.
      destruct (to_u32 (nlen s1)) as [he| |]; cbn [pbind]; try reflexivity.
      destruct (if flag then _ else _) as [[[s2 hh] rem2]| |]; cbn [pbind]; try reflexivity.
      destruct (if negb hh then _ else _) as [[s3 he3] hi3].
      rewrite parse_query_and_fragment_utf8. reflexivity.
    + destruct (if negb (starts_with_wdl_segment after_first) then _ else _) as [[s1 he] hi].
      destruct (parse_path dbg ctx STFile false he s1 l) as [[[s2 hh] rem]| |]; cbn [pbind]; try reflexivity.
      rewrite parse_query_and_fragment_utf8. reflexivity.
  - destruct base as [b|].
    + destruct first as [c|]; [|reflexivity].
      destruct (c =? 63); [rewrite parse_query_and_fragment_utf8; reflexivity|].
      destruct (c =? 35); [reflexivity|].
      destruct (negb (starts_with_wdl_segment l)).
      * destruct (shorten_path STFile _ _) as [s1| |]; cbn [pbind]; try reflexivity.
        destruct (parse_path dbg ctx STFile true _ s1 l) as [[[s2 hh] rem]| |]; cbn [pbind]; try reflexivity.
        apply with_query_and_fragment_utf8.
      * destruct (parse_path dbg ctx STFile false 7 _ l) as [[[s2 hh] rem]| |]; cbn [pbind]; try reflexivity.
        rewrite parse_query_and_fragment_utf8. reflexivity.
    + destruct (parse_path dbg ctx STFile false 7 _ l) as [[[s2 hh] rem]| |]; cbn [pbind]; try reflexivity.
      rewrite parse_query_and_fragment_utf8. reflexivity.
Qed.

Theorem parse_url_utf8_override base input :
  parse_url dbg host_parse host_parse_opaque host_display U8 base input
  = parse_url dbg host_parse host_parse_opaque host_display NoO base input.
Proof.
  unfold parse_url. destruct (parse_scheme CUrlParser _) as [[scheme remaining]|].
  - unfold parse_with_scheme. destruct (to_u32 (nlen scheme)) as [se| |]; cbn [pbind]; try reflexivity.
    destruct (scheme_type_of scheme).
    + apply parse_file_utf8.
    + destruct (inp_count_matching is_slash_or_bslash remaining) as [slashes rem].
      destruct base as [b|]; [|apply after_double_slash_utf8].
      destruct ((slashes <? 2) && _); [|apply after_double_slash_utf8].
      destruct (if dbg then _ else _) as [u_| |]; cbn [pbind]; try reflexivity.
      apply parse_relative_utf8.
    + apply parse_non_special_utf8.
  - destruct base as [b|]; [|reflexivity].
    destruct (inp_starts_with_char 35 _); [reflexivity|].
    destruct (cannot_be_a_base b) as [[|]|]; try reflexivity.
    destruct (st_is_file _); [apply parse_file_utf8 | apply parse_relative_utf8].
Qed.

End Override.

(* input preprocessing *)
Fixpoint inp_collect (fuel : nat) (l : list N) : list N :=
  match fuel with
  | O => []
  | S f => match inp_next l with
           | Some (c, r) => c :: inp_collect f r
           | None => []
           end
  end.

Lemma drop_while_tnl_filter l :
  filter (fun c => negb (is_tnl c)) (drop_while is_tnl l) = filter (fun c => negb (is_tnl c)) l.
Proof.
  induction l as [|c r IH]; [reflexivity|]. cbn [drop_while filter].
  destruct (is_tnl c) eqn:E; cbn [negb]; [exact IH|]. cbn [filter]. rewrite E. reflexivity.
Qed.

Lemma drop_while_length f l : (length (drop_while f l) <= length l)%nat.
Proof. induction l as [|c r IH]; [cbn; lia|]. cbn [drop_while]. destruct (f c); cbn [length]; lia. Qed.

(* iterating Input::next yields exactly the input without tab / LF / CR *)
Theorem input_iteration_is_filter : forall n l, (length l <= n)%nat ->
  inp_collect n l = filter (fun c => negb (is_tnl c)) l.
Proof.
  induction n as [|n IH]; intros l Hlen.
  - destruct l; [reflexivity | cbn in Hlen; lia].
  - cbn [inp_collect]. unfold inp_next. rewrite <- (drop_while_tnl_filter l).
    pose proof (drop_while_length is_tnl l) as Hd.
    destruct (drop_while is_tnl l) as [|c r] eqn:E; [reflexivity|].
    assert (is_tnl c = false) as Hc.
    { clear - E. induction l as [|x l IHl]; [discriminate|]. cbn [drop_while] in E.
      destruct (is_tnl x) eqn:Ex; [apply IHl; exact E | inversion E; subst; exact Ex]. }
    cbn [filter]. rewrite Hc. cbn [negb]. f_equal. apply IH. cbn [length] in Hd. lia.
Qed.

(* trimming: what remains neither starts nor ends with a C0 control or space *)
Lemma drop_while_head f l : match drop_while f l with c :: _ => f c = false | [] => True end.
Proof. induction l as [|c r IH]; [exact I|]. cbn [drop_while]. destruct (f c) eqn:E; [exact IH | exact E]. Qed.

Theorem trim_c0_ends l :
  match input_new_trim_c0 l with
  | [] => True
  | c :: _ => is_c0_or_space c = false
  end
  /\ match rev (input_new_trim_c0 l) with
     | [] => True
     | c :: _ => is_c0_or_space c = false
     end.
Proof.
  unfold input_new_trim_c0, trim_matches. split.
  - set (m := drop_while is_c0_or_space l).
    pose proof (drop_while_head is_c0_or_space l) as Hh. fold m in Hh.
    pose proof (drop_while_head is_c0_or_space (rev m)) as Ht.
    destruct (drop_while is_c0_or_space (rev m)) as [|z t] eqn:E; [exact I|].
    (* rev (z :: t) = rev t ++ [z]; its head is the head of m unless t is empty *)
    assert (exists p, rev m = p ++ z :: t) as [p Hp].
    { clear - E. generalize (rev m) E. intros k. induction k as [|x k IHk]; intros E0; [discriminate|].
      cbn [drop_while] in E0. destruct (is_c0_or_space x).
      - destruct (IHk E0) as [p Hp]. exists (x :: p). cbn. f_equal. exact Hp.
      - exists []. cbn. exact E0. }
    assert (m = rev t ++ z :: rev p) as Hm.
    { rewrite <- (rev_involutive m), Hp, rev_app_distr. cbn [rev]. rewrite <- app_assoc. reflexivity. }
    cbn [rev]. destruct (rev t) as [|y t'] eqn:Et.
    + cbn [app]. exact Ht.
    + cbn [app]. rewrite Hm in Hh. cbn [app] in Hh. exact Hh.
  - rewrite rev_involutive. apply drop_while_head.
Qed.
