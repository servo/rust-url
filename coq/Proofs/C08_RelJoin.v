(* Proofs/C08_RelJoin.v - joining the text make_relative emits to a base whose path is
     pre "/" seg "/" ... "/" last      (pre = everything in front of the path, with authority "scheme://...")
   for every scheme that is not "file":
     join_rel_path   k "../", canonical segments, a last segment, then ["?" q]["#" f]
     join_rel_root   "/" ["?" q]["#" f]
     join_rel_query  "?" q ["#" f]   (this one for "file" as well)
   each as the explicit record. *)
From RU Require Import Base.Prelude Base.Utf8 Base.Utf8Facts Model.AsciiSet Gen.Tables Model.PercentEncoding
  Model.HostT Model.UrlRecord Model.Parser Model.Setters Model.WF Model.KnownC08
  Proofs.ListN Proofs.C14_Enc Proofs.C02_Enc Proofs.C02_Parts Proofs.C02_Opaque Proofs.C02_Path Proofs.C02_PathL1
  Proofs.C02_JoinPath Proofs.C02_Auth Proofs.C08_Input Proofs.C08_Simple Proofs.C08_Contain Proofs.C08_RelPath.

(* "scheme://" in front: se is the offset of ':' *)
Definition front_auth (se : N) (pre : list N) : Prop :=
  exists A R, pre = A ++ [58; 47; 47] ++ R /\ nlen A = se.

(* "scheme:" in front (no authority, no "/." marker) *)
Definition front_noauth (se : N) (pre : list N) : Prop := exists A, pre = A ++ [58] /\ nlen A = se.
Definition front_pre (se : N) (pre : list N) : Prop := front_auth se pre \/ front_noauth se pre.
(* ... and a new path X that may follow it: without authority it must not start with "//" *)
Definition front_for (se : N) (pre X : list N) : Prop :=
  front_auth se pre \/ (front_noauth se pre /\ starts_with s_ss X = false).

Lemma qf_text_above_st st q f : opt_clean (query_set st) q -> opt_clean T_FRAGMENT f ->
  forallb above_space (qf_text q f) = true.
Proof.
  apply qf_text_above_set. unfold query_set.
  destruct (st_is_special st); [exact kept_SQUERY_above | exact kept_QUERY_above].
Qed.

Lemma qf_text_rest q f : rest_qh (qf_text q f).
Proof. unfold rest_qh, qf_text. destruct q; destruct f; cbn; auto. Qed.

Lemma dots_text_above ra : forallb above_space (dots_text ra) = true.
Proof.
  induction ra as [|a ra IH]; [reflexivity|]. unfold dots_text. cbn [map concat]. fold (dots_text ra).
  rewrite forallb_app, IH. reflexivity.
Qed.

Lemma above_ntnl l : forallb above_space l = true -> ntnl l = l.
Proof.
  intros H. change (ntnl l) with (strip_tnl l). apply strip_tnl_id.
  revert H. apply forallb_impl. intros c Hc. unfold not_tnl. rewrite (above_not_tnl c Hc). reflexivity.
Qed.

(* with_query_and_fragment behind an authority: no "/." marker business *)
Lemma wqf_front_auth st se ue hs he hi po pre X rem : front_auth se pre ->
  with_query_and_fragment None CUrlParser st se ue hs he hi po (nlen pre) (pre ++ X) rem
  = (' (s2, qs, fs) <~ parse_query_and_fragment None CUrlParser st se (pre ++ X) rem ;;
     POk (mkUrl s2 se ue hs he hi po (nlen pre) qs fs)).
Proof.
  intros (A & R & -> & <-). apply C02_Auth.wqf_auth.
  - rewrite !nlen_app. change (nlen [58; 47; 47]) with 3. lia.
  - rewrite <- !app_assoc, nskipn_app_len. reflexivity.
Qed.

(* ... and behind "scheme:" when the path does not start with "//": no marker is inserted *)
Lemma wqf_front st se ue hs he hi po pre X rem : front_for se pre X ->
  with_query_and_fragment None CUrlParser st se ue hs he hi po (nlen pre) (pre ++ X) rem
  = (' (s2, qs, fs) <~ parse_query_and_fragment None CUrlParser st se (pre ++ X) rem ;;
     POk (mkUrl s2 se ue hs he hi po (nlen pre) qs fs)).
Proof.
  intros [Hfa|[(A & -> & <-) Hss]]; [apply wqf_front_auth; exact Hfa|].
  unfold with_query_and_fragment.
  assert (nlen (A ++ [58]) = nlen A + 1) as El by (rewrite nlen_app; reflexivity).
  rewrite El. rewrite N.eqb_refl. rewrite <- El. rewrite nskipn_app_len, Hss.
  assert (starts_with s_css (nskipn (nlen A) ((A ++ [58]) ++ X)) = false) as ->.
  { rewrite <- app_assoc. rewrite nskipn_app_len. unfold s_css. cbn [app starts_with].
    replace (58 =? 58) with true by reflexivity. exact Hss. }
  cbn [negb passert pbind]. reflexivity.
Qed.

Section RelJoin.
Variables (dbg : bool) (hp hpo : list N -> result host) (hd : host -> list N).
Notation join b input := (parse_url dbg hp hpo hd None (Some b) input).

(* a reference with a path part *)
Theorem join_rel_path b pre common ra rb blast tl q f c rp' :
  path_start b = nlen pre -> b_before_query b = Bs pre (common ++ ra) ++ blast ->
  cannot_be_a_base b = Some false -> st_is_file (b_st b) = false ->
  front_for (scheme_end b) pre (47 :: segs_text (common ++ rb) ++ tl) ->
  no_slash blast = true -> forallb no_slash ra = true -> forallb not_wdl_seg ra = true ->
  forallb (seg_ok (b_st b)) rb = true -> seg_ok (b_st b) tl = true ->
  opt_clean (query_set (b_st b)) q -> opt_clean T_FRAGMENT f ->
  dots_text ra ++ segs_text rb ++ tl = c :: rp' -> seg_char c = true -> no_spec_bslash (b_st b) c = true ->
  has_scheme_b ((dots_text ra ++ segs_text rb ++ tl) ++ qf_text q f) = false ->
  let P := Bs pre (common ++ rb) ++ tl in
  opt_le (qf_qs (nlen P) q) U32_MAX_P -> opt_le (qf_fs (nlen P) q f) U32_MAX_P ->
  join b ((dots_text ra ++ segs_text rb ++ tl) ++ qf_text q f)
  = POk (url_with b (P ++ qf_text q f) (qf_qs (nlen P) q) (qf_fs (nlen P) q f)).
Proof.
  intros Hps Hbq Hcb Hnf Hfa Hbl Hra Hwra Hrb Htl Hq Hf Erp Hc Hcbs Hsch P Bq Bf.
  set (st := b_st b) in *.
  set (rp := dots_text ra ++ segs_text rb ++ tl) in *.
  assert (forallb above_space (rp ++ qf_text q f) = true) as Habove.
  { unfold rp. rewrite !forallb_app. rewrite dots_text_above, (segs_text_above rb (segs_ok_good st rb Hrb)).
    rewrite (good_seg_above tl (proj1 (seg_ok_parts st tl Htl))). rewrite (qf_text_above_st st q f Hq Hf). reflexivity. }
  unfold parse_url. rewrite trim_c0_id by (apply all_above_edge; exact Habove).
  rewrite parse_scheme_none by (rewrite above_ntnl by exact Habove; exact Hsch).
  unfold seg_char in Hc. apply andb_true_iff in Hc. destruct Hc as [Hc Hc3]. apply andb_true_iff in Hc. destruct Hc as [Hc1 Hc2].
  unfold not_tnl in Hc1. apply negb_true_iff in Hc1, Hc2, Hc3. unfold is_qh in Hc3.
  unfold no_spec_bslash in Hcbs. apply negb_true_iff in Hcbs.
  assert (inp_next (rp ++ qf_text q f) = Some (c, rp' ++ qf_text q f)) as En.
  { rewrite Erp. cbn [app]. apply inp_next_cons. exact Hc1. }
  unfold inp_starts_with_char. rewrite En. replace (c =? 35) with false by lia. rewrite Hcb.
  fold (b_st b). fold st. rewrite Hnf. unfold parse_relative, inp_split_first. rewrite En.
  replace (c =? 63) with false by lia. replace (c =? 35) with false by lia. rewrite Hc2, Hcbs. cbn [orb].
  rewrite Hps, Hbq, <- Bs_path. rewrite pop_path_pth; [| exact Hbl | rewrite Hnf; reflexivity]. cbn [pbind].
  pose proof (Bs_len_ge pre (common ++ ra)) as Hg.
  replace (nlen (Bs pre (common ++ ra)) =? nlen pre) with false by lia. cbn [andb].
  rewrite match47. rewrite Hc2.
  unfold parse_path. unfold rp. rewrite <- !app_assoc.
  rewrite loop_rel; [| assumption | assumption | assumption | assumption | assumption | apply qf_text_rest].
  cbn [pbind]. fold P.
  assert (P = pre ++ (47 :: segs_text (common ++ rb) ++ tl)) as EP by (unfold P, Bs; rewrite <- !app_assoc; reflexivity).
  rewrite EP. rewrite wqf_front by exact Hfa. rewrite <- EP.
  rewrite pqf_canon; [| reflexivity | exact Hq | exact Hf | exact Bq | exact Bf].
  cbn [pbind]. unfold url_with. rewrite Hps. reflexivity.
Qed.

(* "/" [?q][#f] *)
Theorem join_rel_root b pre q f :
  path_start b = nlen pre -> nfirstn (nlen pre) (ser b) = pre ->
  cannot_be_a_base b = Some false -> st_is_file (b_st b) = false -> front_for (scheme_end b) pre [47] ->
  opt_clean (query_set (b_st b)) q -> opt_clean T_FRAGMENT f ->
  let P := pre ++ [47] in
  opt_le (qf_qs (nlen P) q) U32_MAX_P -> opt_le (qf_fs (nlen P) q f) U32_MAX_P ->
  join b (47 :: qf_text q f)
  = POk (url_with b (P ++ qf_text q f) (qf_qs (nlen P) q) (qf_fs (nlen P) q f)).
Proof.
  intros Hps Hpre Hcb Hnf Hfa Hq Hf P Bq Bf.
  set (st := b_st b) in *.
  assert (forallb above_space (47 :: qf_text q f) = true) as Habove.
  { cbn [forallb]. rewrite (qf_text_above_st st q f Hq Hf). reflexivity. }
  unfold parse_url. rewrite trim_c0_id by (apply all_above_edge; exact Habove).
  rewrite parse_scheme_first_not_alpha by (rewrite above_ntnl by exact Habove; reflexivity).
  assert (inp_next (47 :: qf_text q f) = Some (47, qf_text q f)) as En by (apply inp_next_cons; reflexivity).
  unfold inp_starts_with_char. rewrite En. replace (47 =? 35) with false by reflexivity. rewrite Hcb.
  fold (b_st b). fold st. rewrite Hnf. unfold parse_relative, inp_split_first. rewrite En.
  replace (47 =? 63) with false by reflexivity. replace (47 =? 35) with false by reflexivity.
  replace (47 =? 47) with true by reflexivity. cbn [orb].
  assert (fst (inp_count_matching (fun d => (d =? 47) || (d =? 92) && st_is_special st) (47 :: qf_text q f)) = 1) as Ecm.
  { rewrite inp_count_matching_fst. rewrite above_ntnl by exact Habove. cbn [count_leading].
    replace (47 =? 47) with true by reflexivity. cbn [orb].
    assert (count_leading (fun d => (d =? 47) || (d =? 92) && st_is_special st) (qf_text q f) = 0) as ->; [|reflexivity].
    unfold qf_text. destruct q; destruct f; reflexivity. }
  destruct (inp_count_matching (fun d => (d =? 47) || (d =? 92) && st_is_special st) (47 :: qf_text q f)) as [sl rem'].
  cbn [fst] in Ecm. subst sl. replace (2 <=? 1) with false by reflexivity.
  rewrite Hps, Hpre. unfold parse_path.
  replace (pre ++ [47]) with (Bs pre ([] ++ [])) by (unfold Bs; cbn [app segs_text map concat]; apply app_nil_r).
  pose proof (loop_rel dbg st pre [] [] [] [] (qf_text q f) true Hnf eq_refl eq_refl eq_refl eq_refl (qf_text_rest q f)) as HL.
  cbn [dots_text segs_text map concat app] in HL |- *. rewrite HL. cbn [pbind].
  assert (Bs pre [] ++ [] = pre ++ [47]) as EP by (unfold Bs; cbn [app segs_text map concat]; rewrite !app_nil_r; reflexivity).
  rewrite EP. rewrite wqf_front by exact Hfa. fold P.
  rewrite pqf_canon; [| reflexivity | exact Hq | exact Hf | exact Bq | exact Bf].
  cbn [pbind]. unfold url_with. rewrite Hps. reflexivity.
Qed.

(* "?" q [#f], file bases included *)
Theorem join_rel_query b x f :
  cannot_be_a_base b = Some false ->
  clean (query_set (b_st b)) x = true -> opt_clean T_FRAGMENT f ->
  let P := b_before_query b in
  nlen P <= U32_MAX_P -> opt_le (qf_fs (nlen P) (Some x) f) U32_MAX_P ->
  join b (qf_text (Some x) f)
  = POk (url_with b (P ++ qf_text (Some x) f) (Some (nlen P)) (qf_fs (nlen P) (Some x) f)).
Proof.
  intros Hcb Hq Hf P Bq Bf.
  assert (forallb above_space (qf_text (Some x) f) = true) as Habove by (apply (qf_text_above_st (b_st b)); assumption).
  unfold parse_url. rewrite trim_c0_id by (apply all_above_edge; exact Habove).
  rewrite parse_scheme_first_not_alpha by (rewrite above_ntnl by exact Habove; reflexivity).
  assert (inp_next (qf_text (Some x) f) = Some (63, x ++ qf_ftext f)) as En by (apply inp_next_cons; reflexivity).
  unfold inp_starts_with_char. rewrite En. replace (63 =? 35) with false by reflexivity. rewrite Hcb.
  fold (b_st b).
  destruct (st_is_file (b_st b)); [unfold parse_file | unfold parse_relative]; unfold inp_split_first; rewrite En;
    cbn [is_slash_or_bslash N.eqb Pos.eqb orb]; fold P;
    (rewrite pqf_canon; [| reflexivity | exact Hq | exact Hf | exact Bq | exact Bf]); reflexivity.
Qed.

End RelJoin.
