(* Proofs/C07_SpecHostPort.v - the Standard's hostname and host attribute setters in closed form, for a URL whose
   scheme is not "file": one theorem about the host state run WITH a state override (run_host_ov).  The scan of the
   state decides (hscan of Proofs/C07_SpecHost.v).  Without a ':' outside brackets the two overrides do the same
   (hostname_decide).  At such a ':' the override "hostname state" returns; the override "host state" parses the
   buffer as the host (empty buffer or host-parser failure: nothing changes), sets it, and continues in the port
   state with the text after the ':' - whose outcome with a state override is port_outcome of Proofs/C07_SpecRun.v on
   the leading digits: no digit or a number above 65535 = failure AFTER the host has been changed (the port stays),
   otherwise the port is set (null for the default port of the scheme). *)
From RU Require Import Base.Prelude Base.Utf8 Spec.Whatwg Spec.WhatwgFuel Proofs.C01_EqRun Proofs.C01_EqAuthSpec
  Proofs.C07_SpecRun Proofs.C07_SpecProto Proofs.C07_SpecHost.

(* the text after the ':' at which the scan of the host state stops *)
Fixpoint hrest (sp br : bool) (t : list N) : list N :=
  match t with
  | [] => []
  | c :: r => if (c =? 58) && negb br then r
              else if h_end sp c then []
              else hrest sp (br_next br c) r
  end.

Section HostPortOutcome.
Variable hp : bool -> list N -> option spec_host.

(* what the host state leaves when it has stopped at a ':' outside brackets with this buffer and this rest *)
Definition host_port_decide (u : spec_url) (buf rest : list N) : spec_url :=
  if is_nil buf then u
  else match host_parsing hp (negb (is_special u)) buf with
       | None => u
       | Some h => let u1 := set_host u (Some h) in outcome_url (port_outcome u1 (take_digits rest)) u1
       end.

Variable input : list N.

Lemma after_port_outcome u ds : after_override (port_outcome u ds) = SetTo (outcome_url (port_outcome u ds) u).
Proof.
  unfold port_outcome. destruct ds as [|d r]; [reflexivity|].
  destruct (65535 <? decimal_value (d :: r)); reflexivity.
Qed.

(* an ordinary code point goes into the buffer; brackets are tracked *)
Lemma host_push st pre c buf a br pw u :
  push_buf (let m := at_pos st pre buf a br pw u in
            let m1 := if c =? 91 then set_br m true else m in
            if c =? 93 then set_br m1 false else m1) c
  = mkM st (Z.of_nat (length pre)) (buf ++ [c]) a (br_next br c) pw u.
Proof.
  cbv zeta. unfold br_next. destruct (c =? 91) eqn:E91; destruct (c =? 93) eqn:E93; try reflexivity.
  apply N.eqb_eq in E91. subst c. discriminate E93.
Qed.

(* The host state with a state override, "hostname state" (hn = true) or "host state": the scan decides.  The two
   overrides differ at a ':' outside brackets only: the first returns at once, the second goes on into the port state. *)
Theorem run_host_ov (hn : bool) : forall t pre fuel buf a br pw u,
  input = pre ++ t -> (length t < fuel)%nat -> list_eqb (su_scheme u) str_file = false ->
  after_override (run hp input None (Some (if hn then StHostname else StHost)) fuel
                      (at_pos (if hn then StHostname else StHost) pre buf a br pw u))
  = SetTo (let r := hscan (is_special u) br buf t in
           if negb hn && snd r then host_port_decide u (fst r) (hrest (is_special u) br t)
           else hostname_decide hp u r).
Proof.
  destruct hn; cbn [negb andb];
  (induction t as [|c r IH]; intros pre fuel buf a br pw u Hin Hfuel Hnf;
    (destruct fuel as [|fuel]; [cbn [length] in Hfuel; lia|]); cbn [run];
    rewrite (step_at hp input _ _ _ _ _ _ _ _ _ Hin); cbn zeta; cbn [hd_error hscan hrest];
    unfold st_host; cbn [has_ov opt_is_some andb m_url m_buf m_br at_pos cis]; rewrite Hnf; cbn [andb]).
  (* end of input, for either override *)
  1,3: cbn [snd fst andb]; unfold is_authority_end; cbn [is_eof orb]; unfold hostname_decide;
    rewrite !list_eqb_nil_is_nil; (destruct (is_special u && is_nil buf); [reflexivity|]); cbn [andb];
    (destruct (is_nil buf && (includes_credentials u || opt_is_some (su_port u))); [reflexivity|]);
    destruct (host_parsing hp (negb (is_special u)) buf); reflexivity.
  all: destruct ((c =? 58) && negb br) eqn:Ecol; cbn [snd fst andb].
  (* a ':' outside brackets: "hostname state" returns *)
  1: cbn [hostname_decide]; destruct (list_eqb buf []); reflexivity.
  (* ... "host state" sets the host and goes on into the port state *)
  2: { unfold host_port_decide. rewrite list_eqb_nil_is_nil.
       destruct (is_nil buf); [reflexivity|].
       change (ov_is (Some StHost) StHostname) with false. cbn iota.
       destruct (host_parsing hp (negb (is_special u)) buf) as [h|]; [|reflexivity].
       unfold goto, set_buf, set_url. cbn [m_state m_ptr m_buf m_at m_br m_pw m_url at_pos].
       rewrite (len_split hp input pre (c :: r) Hin). cbn [length].
       replace (Z.of_nat (length pre) + Z.of_nat (S (length r)) <=? Z.of_nat (length pre))%Z with false by lia.
       rewrite (inc_at hp StPort pre c).
       rewrite (run_port_ov hp input StHost r (pre ++ [c]) fuel [] a br pw (set_host u (Some h))
                  (snoc_split input pre c r Hin)) by (cbn [length] in Hfuel; lia).
       cbn [app]. apply after_port_outcome. }
  (* no such ':', for either override: a terminator ends the scan, any other code point goes into the buffer *)
  all: unfold is_authority_end; cbn [is_eof cis orb];
    replace ((c =? 47) || (c =? 63) || (c =? 35) || (is_special u && (c =? 92))) with (h_end (is_special u) c) by reflexivity;
    destruct (h_end (is_special u) c) eqn:Eend; cbn [snd fst andb].
  1,3: unfold hostname_decide; rewrite !list_eqb_nil_is_nil;
    (destruct (is_special u && is_nil buf); [reflexivity|]); cbn [andb];
    (destruct (is_nil buf && (includes_credentials u || opt_is_some (su_port u))); [reflexivity|]);
    destruct (host_parsing hp (negb (is_special u)) buf); reflexivity.
  all: rewrite host_push; cbn [m_ptr]; rewrite (len_split hp input pre (c :: r) Hin); cbn [length];
    replace (Z.of_nat (length pre) + Z.of_nat (S (length r)) <=? Z.of_nat (length pre))%Z with false by lia;
    rewrite (inc_at hp _ pre c);
    apply (IH (pre ++ [c]) fuel (buf ++ [c]) a (br_next br c) pw u (snoc_split input pre c r Hin));
    [cbn [length] in Hfuel; lia | exact Hnf].
Qed.
End HostPortOutcome.

(* the hostname attribute setter in closed form, for a URL whose scheme is not "file" *)
Theorem spec_hostname_closed shp su v : list_eqb (su_scheme su) str_file = false ->
  spec_set shp SetHostname su v
  = SetTo (if has_opaque_path su then su
           else hostname_decide shp su (hscan (is_special su) false [] (notnl v))).
Proof.
  intros Hnf. cbn [spec_set]. destruct (has_opaque_path su); [reflexivity|].
  unfold spec_basic_url_parse_override. fold (notnl v).
  change (mkM StHostname 0%Z [] false false false su) with (at_pos StHostname [] [] false false false su).
  exact (run_host_ov shp (notnl v) true (notnl v) [] _ [] false false false su eq_refl (fuel_enough _) Hnf).
Qed.

(* the host attribute setter in closed form on EVERY value, for a URL whose scheme is not "file" *)
Definition host_decide (shp : bool -> list N -> option spec_host) (su : spec_url) (t : list N) : spec_url :=
  let r := hscan (is_special su) false [] t in
  if snd r then host_port_decide shp su (fst r) (hrest (is_special su) false t)
  else hostname_decide shp su r.

Theorem spec_host_closed shp su v : list_eqb (su_scheme su) str_file = false ->
  spec_set shp SetHost su v = SetTo (if has_opaque_path su then su else host_decide shp su (notnl v)).
Proof.
  intros Hnf. cbn [spec_set]. destruct (has_opaque_path su); [reflexivity|].
  unfold spec_basic_url_parse_override. fold (notnl v).
  change (mkM StHost 0%Z [] false false false su) with (at_pos StHost [] [] false false false su).
  exact (run_host_ov shp (notnl v) false (notnl v) [] _ [] false false false su eq_refl (fuel_enough _) Hnf).
Qed.

(* on a value with a port part *)
Theorem spec_host_colon shp su v : list_eqb (su_scheme su) str_file = false ->
  snd (hscan (is_special su) false [] (notnl v)) = true ->
  spec_set shp SetHost su v
  = SetTo (if has_opaque_path su then su
           else host_port_decide shp su (fst (hscan (is_special su) false [] (notnl v)))
                                 (hrest (is_special su) false (notnl v))).
Proof.
  intros Hnf Hc. rewrite (spec_host_closed shp su v Hnf). unfold host_decide. cbv zeta. rewrite Hc. reflexivity.
Qed.

(* the host setter = the hostname setter on a value without a port part *)
Theorem spec_host_nocolon shp su v : list_eqb (su_scheme su) str_file = false ->
  snd (hscan (is_special su) false [] (notnl v)) = false ->
  spec_set shp SetHost su v = spec_set shp SetHostname su v.
Proof.
  intros Hnf Hnc. rewrite (spec_host_closed shp su v Hnf), (spec_hostname_closed shp su v Hnf).
  unfold host_decide. cbv zeta. rewrite Hnc. reflexivity.
Qed.

(* the Standard's hostname setter keeps the invariants *)
Theorem spec_hostname_sane shp su v su' : empty_only shp -> list_eqb (su_scheme su) str_file = false ->
  sane su -> spec_set shp SetHostname su v = SetTo su' -> sane su'.
Proof.
  intros He Hnf S H. rewrite (spec_hostname_closed shp su v Hnf) in H. injection H as <-.
  destruct (has_opaque_path su) eqn:Hop; [exact S|].
  destruct (hscan (is_special su) false [] (notnl v)) as [buf [|]]; cbn [hostname_decide]; [exact S|].
  destruct (is_special su && is_nil buf) eqn:D1; [exact S|].
  destruct (is_nil buf && (includes_credentials su || opt_is_some (su_port su))) eqn:D2; [exact S|].
  destruct (host_parsing shp (negb (is_special su)) buf) as [h|] eqn:Eh; [|exact S].
  destruct S as [S1 S2 S3].
  constructor; unfold cannot_have_username_password_port, is_special, includes_credentials, has_opaque_path in *;
    cbn [set_host su_scheme su_host su_port su_path su_username su_password host_is_null orb] in *.
  - rewrite Hnf, orb_false_r. intros Hem.
    assert (h = SEmpty) as -> by (destruct h; try discriminate Hem; reflexivity).
    rewrite (He _ _ Eh) in D2. cbn [is_nil andb] in D2. apply orb_false_iff in D2. destruct D2 as [A B].
    split; [destruct (su_port su); [discriminate B | reflexivity] | exact A].
  - intros Hs. split; [reflexivity|]. intros _. rewrite Hs in D1. cbn [andb] in D1.
    destruct h; try reflexivity. rewrite (He _ _ Eh) in D1. discriminate D1.
  - rewrite Hop. discriminate.
Qed.

(* the Standard's host setter keeps the invariants *)
Theorem spec_host_sane shp su v su' : empty_only shp -> list_eqb (su_scheme su) str_file = false ->
  sane su -> spec_set shp SetHost su v = SetTo su' -> sane su'.
Proof.
  intros He Hnf S H.
  destruct (snd (hscan (is_special su) false [] (notnl v))) eqn:Hc.
  2:{ rewrite (spec_host_nocolon shp su v Hnf Hc) in H. exact (spec_hostname_sane shp su v su' He Hnf S H). }
  rewrite (spec_host_colon shp su v Hnf Hc) in H. injection H as <-.
  destruct (has_opaque_path su) eqn:Hop; [exact S|].
  unfold host_port_decide.
  destruct (fst (hscan (is_special su) false [] (notnl v))) as [|b0 b1] eqn:Eb; cbn [is_nil]; [exact S|].
  destruct (host_parsing shp (negb (is_special su)) (b0 :: b1)) as [h|] eqn:Eh; [|exact S].
  assert (h <> SEmpty) as Hne by (intros ->; apply He in Eh; discriminate Eh).
  assert (sane (set_host su (Some h))) as S1.
  { destruct S as [S1 S2 S3].
    constructor; unfold cannot_have_username_password_port, is_special, includes_credentials, has_opaque_path in *;
      cbn [set_host su_scheme su_host su_port su_path su_username su_password host_is_null orb] in *.
    - rewrite Hnf, orb_false_r. intros Hem. exfalso. apply Hne. destruct h; try discriminate Hem; reflexivity.
    - intros Hs. split; [reflexivity|]. intros _. destruct h; try reflexivity. exfalso; apply Hne; reflexivity.
    - rewrite Hop. discriminate. }
  cbv zeta. unfold port_outcome.
  destruct (take_digits (hrest (is_special su) false (notnl v))) as [|d ds]; cbn [outcome_url]; [exact S1|].
  destruct (65535 <? decimal_value (d :: ds)); cbn [outcome_url]; [exact S1|].
  destruct S1 as [T1 T2 T3].
  constructor; unfold cannot_have_username_password_port, is_special, includes_credentials, has_opaque_path in *;
    cbn [set_host set_port su_scheme su_host su_port su_path su_username su_password host_is_null orb] in *.
  - rewrite Hnf, orb_false_r. intros Hem. exfalso. apply Hne. destruct h; try discriminate Hem; reflexivity.
  - exact T2.
  - exact T3.
Qed.
