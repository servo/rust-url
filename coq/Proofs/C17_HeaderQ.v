(* Proofs/C17_HeaderQ.v - the header of a data: URL, byte level, when it contains '?': the part before
   the first '?' is in the URL's opaque path (C0-control percent-encode set), the '?' and what follows
   are in the URL's query (query percent-encode set: space, double quote, '<', '>' as well).  Outside the
   class K2 of Known_C17 (Model/KnownC17.v k17_query_space: after the '?', a space ending the header, or ';' SP+ "base64"
   ending it) parse_header still computes what steps 6, 11, 12 of the Fetch processor compute. *)
From RU Require Import Base.Prelude Model.AsciiSet Gen.Tables Model.PercentEncoding
  Model.Parser Model.Mime Model.DataUrl Model.KnownC17
  Spec.Infra Spec.Fetch
  Proofs.C14_Enc Proofs.C02_Enc Proofs.C17_Tables Proofs.C17_Total Proofs.C17_Bridge Proofs.C17_Header.

Local Notation nt := C02_Enc.not_tnl.
Local Notation C := T_CONTROLS.
Local Notation Q := T_QUERY.

(* the query set on bytes (seq_* : should_encode Q) *)
Lemma seq_sweep : all_below 256 (fun b => Bool.eqb (should_encode Q b)
  ((b <? 33) || (126 <? b) || (b =? 34) || (b =? 35) || (b =? 60) || (b =? 62))) = true.
Proof. vm_compute. reflexivity. Qed.

Lemma seq_spec b : b < 256 ->
  should_encode Q b = (b <? 33) || (126 <? b) || (b =? 34) || (b =? 35) || (b =? 60) || (b =? 62).
Proof. intros H. apply eqb_prop. exact (all_below_spec 256 _ seq_sweep b H). Qed.

(* RQ: the reversed percent-encoding with the query set; the same device, with the same lemmas, as
   renc / R in C17_Header.v (see there), and as ru / RU in C17_Known.v *)
Definition rencq (b : N) : list N := rev (enc1 Q b).
Definition RQ (y : list N) : list N := flat_map rencq y.

Lemma rev_encode_q x : rev (encode Q x) = RQ (rev x).
Proof. unfold encode, RQ. rewrite rev_flat_map. reflexivity. Qed.

Lemma rev_RQ y : rev (RQ y) = encode Q (rev y).
Proof. rewrite <- (rev_involutive y) at 1. rewrite <- rev_encode_q, rev_involutive. reflexivity. Qed.

Lemma RQ_cons b y : RQ (b :: y) = rencq b ++ RQ y.
Proof. reflexivity. Qed.

Lemma rencq_plain b : should_encode Q b = false -> rencq b = [b].
Proof. intros E. unfold rencq, enc1. rewrite E. reflexivity. Qed.

Lemma rencq_enc b : should_encode Q b = true -> rencq b = [hex_upper (b mod 16); hex_upper (b / 16); 37].
Proof. intros E. unfold rencq, enc1. rewrite E. reflexivity. Qed.

Lemma dw_app_stop (f : N -> bool) a c0 q : f c0 = false ->
  drop_while f (a ++ c0 :: q) = drop_while f a ++ c0 :: q.
Proof.
  intros Hc. induction a as [|c a IH]; cbn [app drop_while]; [rewrite Hc; reflexivity|].
  destruct (f c); [exact IH|reflexivity].
Qed.

Lemma after_qmark_first a q : ~ In 63 a -> k17_after_qmark (a ++ 63 :: q) = Some q.
Proof.
  induction a as [|c a IH]; intros Hn; [reflexivity|]. cbn [app k17_after_qmark].
  destruct (c =? 63) eqn:E; [apply N.eqb_eq in E; exfalso; apply Hn; left; exact E|].
  apply IH. intros Hin. apply Hn. right. exact Hin.
Qed.

(* stripping ASCII whitespace, as slw_R in C17_Header.v, for a text with a '?': the end of the encoded
   text is in the query part, where a space is encoded *)
Lemma slw_RQ_id y w : bytes y -> match y with c :: _ => (c =? 32) = false | [] => True end ->
  strip_leading_ws (RQ y ++ 63 :: w) = RQ y ++ 63 :: w.
Proof.
  intros Hb Hh. destruct y as [|c y]; [reflexivity|]. inversion Hb as [|? ? Hc Hr]; subst. unfold is_byte in Hc.
  rewrite RQ_cons. pose proof (seq_spec c Hc) as Hs. destruct (should_encode Q c) eqn:E.
  - rewrite (rencq_enc c E). cbn [app strip_leading_ws]. unfold is_ascii_whitespace.
    assert (Hm : c mod 16 < 16) by lia. pose proof (hex_rng _ Hm) as Hx.
    replace ((hex_upper (c mod 16) =? 9) || (hex_upper (c mod 16) =? 10) || (hex_upper (c mod 16) =? 12)
             || (hex_upper (c mod 16) =? 13) || (hex_upper (c mod 16) =? 32)) with false by lia.
    reflexivity.
  - rewrite (rencq_plain c E). cbn [app strip_leading_ws]. unfold is_ascii_whitespace.
    replace ((c =? 9) || (c =? 10) || (c =? 12) || (c =? 13) || (c =? 32)) with false by lia. reflexivity.
Qed.

Lemma strip_ws_q a q : bytes a -> bytes q ->
  match rev q with c :: _ => (c =? 32) = false | [] => True end ->
  strip_leading_and_trailing_ascii_whitespace (encode C a ++ 63 :: encode Q q)
  = encode C (drop_while sp a) ++ 63 :: encode Q q.
Proof.
  intros Ha Hq Hl. unfold strip_leading_and_trailing_ascii_whitespace.
  rewrite (slw_encode_app a (63 :: encode Q q) Ha eq_refl).
  rewrite rev_app_distr. cbn [rev]. rewrite <- app_assoc. cbn [app]. rewrite rev_encode_q.
  rewrite slw_RQ_id by (try apply bytes_rev; assumption).
  rewrite <- rev_encode_q. change (rev (encode Q q) ++ 63 :: rev (encode C (drop_while sp a)))
    with (rev (encode Q q) ++ [63] ++ rev (encode C (drop_while sp a))).
  rewrite app_assoc. change (rev (encode Q q) ++ [63]) with (rev (63 :: encode Q q)).
  rewrite <- rev_app_distr, rev_involutive. reflexivity.
Qed.

(* the base64 marker, as in C17_Header.v, read on the reversed query part *)
Definition lit_an (l : N) : Prop := (48 <= l /\ l <= 57) \/ (97 <= l /\ l <= 122).

Lemma lit_an_ok lit : Forall lit_an lit -> Forall lit_ok lit.
Proof. intros H. rewrite Forall_forall in *. intros l Hl. specialize (H l Hl). unfold lit_an in H. unfold lit_ok. lia. Qed.

Lemma b64_lits_an : Forall lit_an base64_reversed.
Proof. unfold base64_reversed, lit_an. repeat constructor; lia. Qed.

Lemma sc_app_stop lit : Forall lit_an lit -> forall y t,
  strip_prefix_ci lit (y ++ 63 :: t) = option_map (fun r => r ++ 63 :: t) (strip_prefix_ci lit y).
Proof.
  induction lit as [|l lit IH]; intros Hl y t; [reflexivity|].
  inversion Hl as [|? ? Hl1 Hl2]; subst. unfold lit_an in Hl1.
  destruct y as [|c y].
  - cbn [app strip_prefix_ci option_map]. change (to_lower 63) with 63. replace (63 =? l) with false by lia. reflexivity.
  - cbn [app strip_prefix_ci]. destruct (to_lower c =? l); [exact (IH Hl2 y t)|reflexivity].
Qed.

Lemma marker_tail_app_stop r t :
  marker_tail (r ++ 63 :: t) = option_map (fun r' => r' ++ 63 :: t) (marker_tail r).
Proof.
  unfold marker_tail. induction r as [|c r IH]; [reflexivity|]. cbn [app drop_spaces].
  destruct (c =? 32); [exact IH|]. destruct (c =? 59); reflexivity.
Qed.

Lemma marker_rev_app_stop y t :
  marker_rev (y ++ 63 :: t) = option_map (fun r => r ++ 63 :: t) (marker_rev y).
Proof.
  unfold marker_rev. rewrite (sc_app_stop _ b64_lits_an).
  destruct (strip_prefix_ci base64_reversed y) as [r|]; cbn [option_map]; [apply marker_tail_app_stop|reflexivity].
Qed.

Lemma strip_ci_RQ lit : Forall lit_an lit -> forall y t, bytes y ->
  match strip_prefix_ci lit y with
  | Some r => strip_prefix_ci lit (RQ y ++ 63 :: t) = Some (RQ r ++ 63 :: t)
  | None => match strip_prefix_ci lit (RQ y ++ 63 :: t) with Some r => marker_tail r = None | None => True end
  end.
Proof.
  intros Hl y t Hb.
  assert (Han : forall c, In c lit -> (48 <= c /\ c <= 57) \/ (97 <= c /\ c <= 122)) by (apply Forall_forall; exact Hl).
  apply (strip_ci_renc Q (63 :: t)); [| exact (lit_an_ok lit Hl) | | | exact Hb].
  - intros c Hc E. rewrite (seq_spec c Hc) in E. unfold to_lower, is_upper.
    replace ((65 <=? c) && (c <=? 90)) with false by lia. reflexivity.
  - intros c Hc E Hin. rewrite (seq_spec c Hc) in E. specialize (Han c Hin). lia.
  - intros Hin. specialize (Han _ Hin). change (to_lower 63) with 63 in Han. lia.
Qed.

Lemma marker_tail_RQ r t : bytes r ->
  match r with
  | c :: r1 => (c =? 32) && match drop_spaces r1 with d :: _ => d =? 59 | [] => false end = false
  | [] => True
  end ->
  marker_tail (RQ r ++ 63 :: t) = option_map (fun r' => RQ r' ++ 63 :: t) (marker_tail r).
Proof.
  intros Hb Hk. destruct r as [|c r1]; [reflexivity|]. inversion Hb as [|? ? Hc Hr]; subst. unfold is_byte in Hc.
  rewrite RQ_cons. pose proof (seq_spec c Hc) as Hs. unfold marker_tail. destruct (should_encode Q c) eqn:E.
  - rewrite (rencq_enc c E). cbn [app drop_spaces].
    assert (Hm : c mod 16 < 16) by lia. pose proof (hex_rng _ Hm) as Hh.
    replace (hex_upper (c mod 16) =? 32) with false by lia. replace (hex_upper (c mod 16) =? 59) with false by lia.
    destruct (c =? 32) eqn:E32.
    + cbn [andb] in Hk. destruct (drop_spaces r1) as [|d r']; [reflexivity|]. rewrite Hk. reflexivity.
    + replace (c =? 59) with false by lia. reflexivity.
  - rewrite (rencq_plain c E). cbn [app drop_spaces]. replace (c =? 32) with false by lia.
    destruct (c =? 59); reflexivity.
Qed.

(* k17_strip_ci / k17_drop of Model/KnownC17.v (which is self-contained) are strip_prefix_ci / drop_spaces *)
Lemma k17_strip_same lit : forall y, k17_strip_ci lit y = strip_prefix_ci lit y.
Proof.
  induction lit as [|l lit IH]; intros y; [reflexivity|]. destruct y as [|c y]; [reflexivity|].
  cbn [k17_strip_ci strip_prefix_ci]. rewrite IH. reflexivity.
Qed.

Lemma k17_drop_same r : k17_drop (fun x => x =? 32) r = drop_spaces r.
Proof. induction r as [|c r IH]; [reflexivity|]. cbn [k17_drop drop_spaces]. rewrite IH. reflexivity. Qed.

Lemma marker_rev_RQ y t : bytes y -> k17_spaced_base64 y = false ->
  marker_rev (RQ y ++ 63 :: t) = option_map (fun r => RQ r ++ 63 :: t) (marker_rev y).
Proof.
  intros Hb Hk. unfold marker_rev. pose proof (strip_ci_RQ base64_reversed b64_lits_an y t Hb) as H.
  unfold k17_spaced_base64 in Hk. rewrite k17_strip_same in Hk. change [52; 54; 101; 115; 97; 98] with base64_reversed in Hk.
  destruct (strip_prefix_ci base64_reversed y) as [r|] eqn:E.
  - rewrite H. apply marker_tail_RQ.
    + destruct (strip_ci_suffix _ _ _ E) as [p ->]. apply bytes_app in Hb. tauto.
    + destruct r as [|c r1]; [exact I|]. rewrite k17_drop_same in Hk. exact Hk.
  - destruct (strip_prefix_ci base64_reversed (RQ y ++ 63 :: t)) as [r|]; [exact H|reflexivity].
Qed.

(* the percent-encoding loop of parse_header inside the query (in_query = true) *)
Lemma header_loop_true t : bytes t -> ~ In 35 t -> header_loop true t = encode Q (filter nt t).
Proof.
  induction t as [|b t IH]; intros Hb Hq; [reflexivity|]. inversion Hb as [|? ? Hb1 Hb2]; subst. unfold is_byte in Hb1.
  assert (Hq' : ~ In 35 t) by (intros Hin; apply Hq; right; exact Hin).
  assert (Hb35 : (b =? 35) = false) by (destruct (b =? 35) eqn:E; [apply N.eqb_eq in E; exfalso; apply Hq; left; exact E|reflexivity]).
  cbn [header_loop filter]. rewrite is_skipped_spec. unfold C02_Enc.not_tnl. change (is_tnl b) with (tnl b).
  destruct (tnl b); cbn [negb]; [exact (IH Hb2 Hq')|].
  rewrite encode_cons. unfold enc1. pose proof (hdr_qenc_is_query b Hb1) as Hs. rewrite Hb35 in Hs. cbn [negb] in Hs.
  rewrite andb_true_r in Hs. rewrite andb_true_r.
  destruct (in_ranges b T_DU_HDR_ENC); cbn [orb] in Hs.
  - rewrite <- Hs, percent_encode_spec by exact Hb1. rewrite (IH Hb2 Hq'). reflexivity.
  - rewrite <- Hs. destruct (memb b T_DU_HDR_QENC).
    + rewrite percent_encode_spec by exact Hb1. rewrite (IH Hb2 Hq'). reflexivity.
    + change T_DU_HDR_QMARK with 63. destruct (b =? 63) eqn:E63; rewrite (IH Hb2 Hq'); [|reflexivity].
      apply N.eqb_eq in E63. subst b. reflexivity.
Qed.

Lemma header_loop_q t : bytes t -> ~ In 35 t -> forall a q, filter nt t = a ++ 63 :: q -> ~ In 63 a ->
  header_loop false t = encode C a ++ 63 :: encode Q q.
Proof.
  induction t as [|b t IH]; intros Hb Hq a q Hf Ha; [destruct a; discriminate|].
  inversion Hb as [|? ? Hb1 Hb2]; subst. unfold is_byte in Hb1.
  assert (Hq' : ~ In 35 t) by (intros Hin; apply Hq; right; exact Hin).
  cbn [header_loop]. cbn [filter] in Hf. rewrite is_skipped_spec. unfold C02_Enc.not_tnl in Hf. change (is_tnl b) with (tnl b) in Hf.
  destruct (tnl b) eqn:Et; cbn [negb] in Hf; [exact (IH Hb2 Hq' a q Hf Ha)|].
  destruct a as [|a0 a1]; cbn [app] in Hf; inversion Hf as [[E1 E2]]; subst.
  - (* the '?' *)
    change (in_ranges 63 T_DU_HDR_ENC) with false. change (memb 63 T_DU_HDR_QENC && false) with false.
    change (63 =? T_DU_HDR_QMARK) with true. cbn [encode flat_map app]. f_equal.
    fold (filter nt t). apply header_loop_true; assumption.
  - assert (Hb63 : (a0 =? 63) = false) by (destruct (a0 =? 63) eqn:E; [apply N.eqb_eq in E; exfalso; apply Ha; left; exact E|reflexivity]).
    assert (Ha' : ~ In 63 a1) by (intros Hin; apply Ha; right; exact Hin).
    rewrite encode_cons. unfold enc1. rewrite hdr_enc_is_controls by exact Hb1.
    destruct (should_encode C a0).
    + rewrite percent_encode_spec by exact Hb1. rewrite <- app_assoc. f_equal. exact (IH Hb2 Hq' a1 q E2 Ha').
    + rewrite andb_false_r. change T_DU_HDR_QMARK with 63. rewrite Hb63. cbn [app]. f_equal. exact (IH Hb2 Hq' a1 q E2 Ha').
Qed.

(* the "text/plain" prefix depends on the first byte only *)
Lemma starts_app a q q' : starts_with_byte 59 (a ++ 63 :: q) = starts_with_byte 59 (a ++ 63 :: q').
Proof. destruct a; reflexivity. Qed.

(* the header theorem with a '?', byte level; composed as header_bytes in C17_Header.v *)
Theorem header_bytes_q h a q : bytes h -> ~ In 35 h ->
  filter nt h = a ++ 63 :: q -> ~ In 63 a ->
  k17_query_space (filter nt h) = false ->
  header_of h = fetch_header (encode C a ++ 63 :: encode Q q).
Proof.
  intros Hb H35 Hx Ha Hk.
  assert (Hbx : bytes (a ++ 63 :: q)) by (rewrite <- Hx; exact (bytes_filter nt h Hb)).
  apply bytes_app in Hbx. destruct Hbx as [Hba Hbq]. inversion Hbq as [|? ? _ Hbq']; subst. clear Hbq. rename Hbq' into Hbq.
  (* outside K2: the query part ends neither in a space nor in ';' SP+ "base64" *)
  unfold k17_query_space in Hk. rewrite Hx, after_qmark_first in Hk by exact Ha.
  assert (NKa : match rev q with c :: _ => (c =? 32) = false | [] => True end).
  { destruct (rev q) as [|c y]; [exact I|]. apply orb_false_iff in Hk. tauto. }
  assert (NKb : k17_spaced_base64 (rev q) = false).
  { destruct (rev q) as [|c y]; [reflexivity|]. apply orb_false_iff in Hk. tauto. }
  clear Hk.
  (* the trimmed header without tab / newline *)
  set (a' := drop_while sp a).
  assert (Hba' : bytes a') by (apply bytes_drop_while; exact Hba).
  assert (Ha' : ~ In 63 a').
  { destruct (drop_while_suffix sp a) as [p Hp]. intros Hin. apply Ha. rewrite Hp. apply in_or_app. right. exact Hin. }
  assert (Ht : filter nt (trimmed_header h) = a' ++ 63 :: q).
  { unfold trimmed_header. rewrite filter_trim_ht, Hx. rewrite dw_app_stop by reflexivity. fold a'.
    apply drop_while_end_id. rewrite rev_app_distr. cbn [rev]. rewrite <- app_assoc. cbn [app].
    destruct (rev q) as [|c y]; [reflexivity|]. exact NKa. }
  destruct (trimmed_sub h) as (p0 & q0 & Hsub).
  assert (Hbt : bytes (trimmed_header h)).
  { rewrite Hsub in Hb. apply bytes_app in Hb. destruct Hb as [_ Hb]. apply bytes_app in Hb. tauto. }
  assert (H35t : ~ In 35 (trimmed_header h)).
  { rewrite Hsub in H35. intros Hin. apply H35. apply in_or_app. right. apply in_or_app. left. exact Hin. }
  (* the Fetch side *)
  unfold header_of, fetch_header.
  rewrite strip_ws_q by assumption. fold a'.
  rewrite ewbm_rev. rewrite rev_app_distr. cbn [rev]. rewrite <- app_assoc. cbn [app]. rewrite rev_encode_q.
  rewrite marker_rev_RQ by (try apply bytes_rev; assumption).
  (* the crate side *)
  pose proof (crate_rev_marker (rev (trimmed_header h))) as Hcm.
  rewrite filter_rev', Ht, rev_app_distr in Hcm. cbn [rev] in Hcm. rewrite <- app_assoc in Hcm. cbn [app] in Hcm.
  rewrite marker_rev_app_stop in Hcm.
  destruct (crate_rev (rev (trimmed_header h))) as [bs|] eqn:Ec; cbn [option_map] in Hcm.
  - destruct (marker_rev (rev q)) as [y'|] eqn:Em; [|discriminate]. cbn [option_map] in Hcm. inversion Hcm as [Hbs]. clear Hcm.
    cbn [option_map]. f_equal.
    destruct (crate_rev_suffix _ _ Ec) as [pp Hpp].
    assert (Et : trimmed_header h = rev bs ++ rev pp) by (rewrite <- rev_app_distr, <- Hpp, rev_involutive; reflexivity).
    assert (Hbb : bytes (rev bs)) by (rewrite Et in Hbt; apply bytes_app in Hbt; tauto).
    assert (H35b : ~ In 35 (rev bs)) by (rewrite Et in H35t; exact (notin_prefix _ _ _ H35t)).
    assert (Hfb : filter nt (rev bs) = a' ++ 63 :: rev y').
    { rewrite filter_rev', <- Hbs, rev_app_distr. cbn [rev]. rewrite <- app_assoc, rev_involutive. reflexivity. }
    unfold header_string. rewrite (header_loop_q _ Hbb H35b a' (rev y') Hfb Ha').
    rewrite rev_app_distr. cbn [rev]. rewrite <- app_assoc. cbn [app]. rewrite rev_RQ, rev_involutive.
    rewrite step12_app by exact Hba'. f_equal.
    rewrite starts_filter, Hfb; [rewrite (starts_app a' (encode Q (rev y')) (rev y')); reflexivity|].
    apply (prefix_head _ (rev pp) _ (fun b => tnl b = false) Et). exact (trimmed_head h).
  - destruct (marker_rev (rev q)) as [y'|] eqn:Em; [discriminate|]. cbn [option_map]. f_equal.
    unfold header_string. rewrite (header_loop_q _ Hbt H35t a' q Ht Ha').
    rewrite step12_app by exact Hba'. f_equal.
    rewrite starts_filter, Ht; [rewrite (starts_app a' (encode Q q) q); reflexivity|]. exact (trimmed_head h).
Qed.
