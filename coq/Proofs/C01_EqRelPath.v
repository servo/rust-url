(* Proofs/C01_EqRelPath.v - C01 equivalence, scheme-less references against a related base that is
   neither special nor opaque, the two path arms of parse_relative:
     "/x/y?q#f"  (relative slash state -> path state on an empty path; base authority kept) and
     "x/../y"    (relative state: the base path without its last segment, then the path state;
                  pop_path of the model vs "shorten" of the Standard).
   This file: the model's path loop started on the segments of the base, the three shapes of
   with_query_and_fragment behind it (authority / no marker / "/." marker), and the record with a
   replaced path (built from C06_Path.with_path and the elementary edits of C06_Steps). *)
From RU Require Import Base.Prelude Base.Utf8 Gen.Tables Model.PercentEncoding Model.UrlRecord Model.Parser
  Model.Setters Model.WF Spec.Whatwg Proofs.ListN Proofs.C02_Parts Proofs.C02_Opaque Proofs.C02_Path
  Proofs.C02_PathL1 Proofs.C03_WF Proofs.C08_Input Proofs.C01_EqRun Proofs.C01_EqApi Proofs.C01_EqPathSpec
  Proofs.C06_List Proofs.C06_WFI Proofs.C06_Tail Proofs.C06_Steps Proofs.C06_PathParser Proofs.C06_Path
  Proofs.C08_Simple Proofs.C08_Contain Proofs.C01_EqRef Proofs.C01_EqPath Proofs.C01_EqRel.

Ltac lenl := unfold nlen in *; repeat rewrite app_length in *; cbn [length] in *; lia.

(* the authority-less canonical record is well-formed (no length bounds needed) *)
Lemma noauth_url_wf2 sch body q f : scheme_canon sch = true ->
  forallb no_qh (47 :: body) = true -> opt_clean T_QUERY q ->
  wf_b (noauth_url sch (47 :: body) q f) = true.
Proof.
  intros Hsch HT Hq.
  unfold scheme_canon in Hsch. apply andb_true_iff in Hsch. destruct Hsch as [Hhead Hall].
  set (T := 47 :: body) in *.
  set (M := marker_of T). set (A := sch ++ [58]).
  assert (nlen A = nlen sch + 1) as EA by (unfold A; rewrite nlen_app; reflexivity).
  assert (noauth_ser sch T q f = ((A ++ M) ++ T) ++ qf_text q f) as Eser.
  { unfold noauth_ser, noauth_pre. fold A M. rewrite <- !app_assoc. reflexivity. }
  assert (starts_with s_ss (M ++ T ++ qf_text q f) = false) as Hno.
  { unfold M, marker_of, T. destruct (starts_with s_ss (47 :: body)) eqn:Ess; [reflexivity|].
    cbn [app]. unfold s_ss in *. cbn [starts_with] in *. replace (47 =? 47) with true in * by reflexivity. cbn [andb] in *.
    destruct body as [|b0 b']; [|cbn [app]; exact Ess].
    cbn [app]. unfold qf_text. destruct q; destruct f; reflexivity. }
  unfold wf_b. apply andb_true_iff. split; [apply andb_true_iff; split|].
  - unfold wf_scheme, noauth_url. cbn [ser scheme_end]. unfold noauth_ser, noauth_pre.
    repeat (apply andb_true_iff; split).
    + destruct sch; [discriminate|]. unfold nlen. cbn [length]. lia.
    + destruct sch as [|c s]; [discriminate|]. cbn [app]. unfold is_alpha. rewrite Hhead. apply orb_true_r.
    + rewrite <- !app_assoc. rewrite nfirstn_app_len.
      apply (forallb_impl scheme_out_char); [exact scheme_out_char_scheme_char | exact Hall].
    + rewrite <- !app_assoc. cbn [app]. apply byte_eqb_app.
  - assert (has_authority_b (noauth_url sch T q f) = false) as Hna.
    { unfold has_authority_b, noauth_url. cbn [ser scheme_end]. unfold noauth_ser, noauth_pre. fold M.
      rewrite <- !app_assoc. rewrite nskipn_app_len. unfold s_css. cbn [app starts_with].
      replace (58 =? 58) with true by reflexivity. cbn [andb]. exact Hno. }
    rewrite Hna. unfold wf_no_authority, noauth_url.
    cbn [ser scheme_end username_end host_start host_end hosti port path_start]. fold A M.
    rewrite Eser. rewrite !nlen_app. cbn [hi_eqb].
    replace (nlen A =? nlen sch + 1) with true by lia.
    replace (nlen A + nlen M <=? nlen A + nlen M + nlen T + nlen (qf_text q f)) with true by lia. cbn [andb].
    unfold M, marker_of, T. destruct (starts_with s_ss (47 :: body)) eqn:Ess.
    + apply orb_true_iff. right. repeat (apply andb_true_iff; split).
      * unfold nlen at 2. cbn [length]. lia.
      * replace (nlen sch + 1) with (nlen A) by lia. rewrite <- !app_assoc. cbn [app]. apply byte_eqb_app.
      * replace (nlen sch + 2) with (nlen (A ++ [47])) by (rewrite nlen_app; unfold nlen at 2; cbn [length]; lia).
        replace (((A ++ [47; 46]) ++ 47 :: body) ++ qf_text q f) with ((A ++ [47]) ++ 46 :: (47 :: body) ++ qf_text q f)
          by (rewrite <- !app_assoc; reflexivity).
        apply byte_eqb_app.
      * replace (nlen A + nlen [47; 46]) with (nlen (A ++ [47; 46])) by (rewrite nlen_app; reflexivity).
        rewrite <- (app_assoc (A ++ [47; 46])). rewrite nskipn_app_len.
        unfold s_ss in *. cbn [app starts_with] in *. replace (47 =? 47) with true in * by reflexivity. cbn [andb] in *.
        destruct body as [|b0 b']; [discriminate|]. cbn [app]. exact Ess.
    + apply orb_true_iff. left. unfold nlen at 2. cbn [length]. lia.
  - apply (wf_qf_generic (A ++ M) T q f).
    + exact Eser.
    + unfold noauth_url. cbn [path_start]. fold A M. rewrite nlen_app. reflexivity.
    + unfold noauth_url. cbn [query_start]. unfold noauth_pre. fold A M. rewrite <- !app_assoc. reflexivity.
    + unfold noauth_url. cbn [fragment_start]. unfold noauth_pre. fold A M. rewrite <- !app_assoc. reflexivity.
    + exact HT.
    + exact Hq.
Qed.

(* the path loop started on segments of the base *)
Lemma segs_text_flat P : 47 :: segs_text P = flat_map (fun s => 47 :: s) P ++ [47].
Proof.
  induction P as [|s P IH]; [reflexivity|]. unfold segs_text in *. cbn [map concat flat_map].
  rewrite <- !app_assoc. cbn [app]. f_equal. f_equal. exact IH.
Qed.

Lemma Bs_flat pre P : Bs pre P = (pre ++ flat_map (fun s => 47 :: s) P) ++ [47].
Proof.
  unfold Bs. rewrite <- !app_assoc. f_equal. cbn [app]. apply segs_text_flat.
Qed.

Lemma spath_fst_nonempty t : forall P B, fst (spath t P B) <> [].
Proof.
  induction t as [|c r IH]; intros P B; cbn [spath].
  - cbn [fst]. apply fin_nonempty.
  - destruct (c =? 47); [apply IH|]. destruct (is_qh c); [cbn [fst]; apply fin_nonempty | apply IH].
Qed.

Section PathArm.
Variable dbg : bool.

(* parse_path on  pre "/" seg "/" ... seg "/" : the Standard's path state started on those segments *)
Lemma loop_from_segments pre r P0 : usv_list r -> forallb no_slash P0 = true ->
  spath_ok (ntnl r) P0 [] = true ->
  forallb no_qh (flat_map (fun s => 47 :: s) P0) = true ->
  let P1 := fst (spath (ntnl r) P0 []) in
  parse_path dbg CUrlParser STNotSpecial true (nlen pre) (Bs pre P0) r
    = POk (pre ++ flat_map (fun s => 47 :: s) P1, true, cbb_rest r)
  /\ snd (spath (ntnl r) P0 []) = ntnl (cbb_rest r)
  /\ forallb no_qh (flat_map (fun s => 47 :: s) P1) = true
  /\ forallb no_slash P1 = true /\ P1 <> [].
Proof.
  intros Hur Hns Hok Hqh P1.
  assert (pend_ok []) as Hp0 by (split; [constructor | reflexivity]).
  destruct (loop_exact pre dbg r P0 [] [] true Hur Hp0 Hns eq_refl Hok) as (segs & last & Hloop & Hfst & Hsnd).
  cbn [app rev utf8_encode flat_map encode] in Hfst, Hsnd.
  rewrite app_nil_r in Hloop.
  assert (Bs pre segs ++ last = pre ++ flat_map (fun s => 47 :: s) P1) as ES.
  { unfold P1. rewrite Hfst, path_text_flat. unfold Bs, path_text. rewrite <- !app_assoc. reflexivity. }
  split; [|split; [exact Hsnd|split; [|split]]].
  - unfold parse_path. rewrite Hloop, ES. reflexivity.
  - (* no '?' / '#' in what the loop leaves *)
    assert (nlen (pre ++ [47]) = nlen pre + 1) as Lpre by (rewrite nlen_app; reflexivity).
    assert (PInv (nlen pre) (nlen pre + 1) (pre ++ [47]) (Bs pre P0)) as I0.
    { split.
      - unfold Bs. rewrite <- Lpre. apply nfirstn_app_len.
      - rewrite Bs_flat, <- app_assoc. rewrite nskipn_app_len. rewrite forallb_app, Hqh. reflexivity. }
    assert (nlen pre + 1 <= nlen (Bs pre P0)) as L0 by apply Bs_len_ge.
    destruct (pinv_loop_url dbg (nlen pre) (nlen pre + 1) (pre ++ [47]) ltac:(lia) ltac:(lia) Lpre STNotSpecial r
                ltac:(discriminate) _ _ _ _ _ _ _ Hloop I0 L0 Hur ltac:(constructor)) as ((x & Ex & Ix) & _ & _).
    cbn [file_path_fixup st_is_file] in Ex. subst x. destruct Ix as [_ Ix].
    rewrite ES in Ix. rewrite nskipn_app_len in Ix. exact Ix.
  - unfold P1. apply spath_no_slash; [exact Hns | reflexivity].
  - unfold P1. apply spath_fst_nonempty.
Qed.

End PathArm.

(* with_query_and_fragment behind the path state *)
Section Wqf.
Variable ovr : option (list N -> list N).

(* the base has an authority: nothing to fix *)
Lemma wqf_plain_st st se ue hs he hi po ps s rest : se + 3 <= ps ->
  starts_with s_css (nskipn se s) = true ->
  with_query_and_fragment ovr CUrlParser st se ue hs he hi po ps s rest
  = (' (s2, qs, fs) <~ parse_query_and_fragment ovr CUrlParser st se s rest ;;
     POk (mkUrl s2 se ue hs he hi po ps qs fs)).
Proof.
  intros H Hc. unfold with_query_and_fragment.
  replace (ps =? se + 1) with false by lia.
  assert ((ps =? se + 3) && list_eqb (nfirstn (ps - se) (nskipn se s)) [58; 47; 46] = false) as ->.
  { destruct (ps =? se + 3) eqn:E; [|reflexivity]. cbn [andb]. apply N.eqb_eq in E. rewrite E.
    replace (se + 3 - se) with 3 by lia. apply starts_with_split in Hc. rewrite Hc. reflexivity. }
  cbn [pbind]. reflexivity.
Qed.

Lemma wqf_plain se ue hs he hi po ps s rest : se + 3 <= ps ->
  starts_with s_css (nskipn se s) = true ->
  with_query_and_fragment ovr CUrlParser STNotSpecial se ue hs he hi po ps s rest
  = (' (s2, qs, fs) <~ parse_query_and_fragment ovr CUrlParser STNotSpecial se s rest ;;
     POk (mkUrl s2 se ue hs he hi po ps qs fs)).
Proof. exact (wqf_plain_st STNotSpecial se ue hs he hi po ps s rest). Qed.

(* the base carries the "/." marker: it is dropped unless the new path starts with "//" again *)
Lemma wqf_noauth_marker sch body rest :
  let a := nlen (sch ++ [58]) in
  let T := 47 :: body in
  with_query_and_fragment ovr CUrlParser STNotSpecial (nlen sch) a a a HI_None None (a + 2) ((sch ++ [58; 47; 46]) ++ T) rest
  = (' (s2, qs, fs) <~ parse_query_and_fragment ovr CUrlParser STNotSpecial (nlen sch) (noauth_pre sch T) rest ;;
     POk (mkUrl s2 (nlen sch) a a a HI_None None (a + nlen (marker_of T)) qs fs)).
Proof.
  intros a T. unfold with_query_and_fragment.
  assert (a = nlen sch + 1) as Ea by (unfold a; rewrite nlen_app; reflexivity).
  set (S := (sch ++ [58; 47; 46]) ++ T).
  assert (S = sch ++ [58; 47; 46] ++ T) as E0 by (unfold S; rewrite <- app_assoc; reflexivity).
  assert (a + 2 = nlen (sch ++ [58; 47; 46])) as Ea2 by (rewrite nlen_app; unfold nlen at 2; cbn [length]; lia).
  replace (a + 2 =? nlen sch + 1) with false by lia.
  assert ((a + 2 =? nlen sch + 3) && list_eqb (nfirstn (a + 2 - nlen sch) (nskipn (nlen sch) S)) [58; 47; 46] = true) as ->.
  { replace (a + 2 =? nlen sch + 3) with true by lia. rewrite E0, nskipn_app_len.
    replace (a + 2 - nlen sch) with 3 by lia. reflexivity. }
  assert (nnth S (a + 2) = Some 47) as ->.
  { unfold S. rewrite Ea2. rewrite nnth_app_ge by lia. rewrite N.sub_diag. reflexivity. }
  assert (nnth S (a + 2 + 1) = nnth body 0) as ->.
  { unfold S. rewrite Ea2. rewrite nnth_app_ge by lia.
    replace (nlen (sch ++ [58; 47; 46]) + 1 - nlen (sch ++ [58; 47; 46])) with 1 by lia. reflexivity. }
  assert (nskipn (a + 2) S = T) as -> by (unfold S; rewrite Ea2; apply nskipn_app_len).
  assert (nfirstn (nlen sch) S = sch) as -> by (rewrite E0; apply nfirstn_app_len).
  replace (a + 2 - 2) with a by lia.
  cbv beta iota. replace (47 =? 47) with true by reflexivity. cbn [passert pbind].
  assert (forall y, starts_with s_css (nskipn (nlen sch) (sch ++ [58; 47; 46] ++ y)) = false) as Hm
    by (intros y; rewrite nskipn_app_len; reflexivity).
  assert (starts_with s_ss T = false ->
          (' (ser1, path_start1) <~
             (' _ <~ passert (negb (starts_with s_css (nskipn (nlen sch) (sch ++ [58] ++ T)))) ;; POk (sch ++ [58] ++ T, a)) ;;
           ' (ser2, qs, fs) <~ parse_query_and_fragment ovr CUrlParser STNotSpecial (nlen sch) ser1 rest ;;
           POk (mkUrl ser2 (nlen sch) a a a HI_None None path_start1 qs fs))
          = (' (s2, qs, fs) <~ parse_query_and_fragment ovr CUrlParser STNotSpecial (nlen sch) (noauth_pre sch T) rest ;;
             POk (mkUrl s2 (nlen sch) a a a HI_None None (a + nlen (marker_of T)) qs fs))) as Hplain.
  { intros Ess. unfold noauth_pre, marker_of. rewrite Ess.
    assert (starts_with s_css (nskipn (nlen sch) (sch ++ [58] ++ T)) = false) as ->.
    { rewrite nskipn_app_len. unfold T, s_css, s_ss in *. cbn [app starts_with] in *.
      replace (58 =? 58) with true by reflexivity. replace (47 =? 47) with true in * by reflexivity.
      cbn [andb] in *. exact Ess. }
    cbn [negb passert pbind]. change (nlen (@nil N)) with 0. rewrite N.add_0_r.
    replace ((sch ++ [58]) ++ [] ++ T) with (sch ++ [58] ++ T) by (rewrite <- app_assoc; reflexivity).
    reflexivity. }
  destruct body as [|b0 b'].
  - change (nnth [] 0) with (@None N). cbv beta iota. apply Hplain. reflexivity.
  - change (nnth (b0 :: b') 0) with (Some b0). cbv beta iota. rewrite match47.
    destruct (b0 =? 47) eqn:E47.
    + unfold S at 1. rewrite <- app_assoc. rewrite Hm. cbn [negb passert pbind].
      assert (marker_of T = [47; 46]) as EM.
      { unfold marker_of, T, s_ss. cbn [starts_with]. replace (47 =? 47) with true by reflexivity.
        rewrite (N.eqb_sym 47 b0), E47. reflexivity. }
      unfold noauth_pre. rewrite EM. change (nlen [47; 46]) with 2.
      replace ((sch ++ [58]) ++ [47; 46] ++ T) with S by (unfold S; rewrite <- !app_assoc; reflexivity).
      reflexivity.
    + apply Hplain. unfold T, s_ss. cbn [starts_with]. replace (47 =? 47) with true by reflexivity.
      rewrite (N.eqb_sym 47 b0), E47. reflexivity.
Qed.

End Wqf.

(* the record with a replaced path, query and fragment (base with authority) *)
Definition auth_path_url (b : url) (T : list N) (q f : option (list N)) : url :=
  let pre := nfirstn (path_start b) (ser b) in
  mkUrl ((pre ++ T) ++ qf_text q f) (scheme_end b) (username_end b) (host_start b) (host_end b) (hosti b) (port b)
        (path_start b) (qf_qs (nlen (pre ++ T)) q) (qf_fs (nlen (pre ++ T)) q f).

Lemma auth_path_record dbg b T q f :
  wf_b b = true -> has_authority_b b = true -> forallb no_qh T = true -> (T = [] \/ exists r, T = 47 :: r) ->
  match q with Some Q => forallb no_h Q = true | None => True end ->
  wf_b (auth_path_url b T q f) = true /\ same_front dbg b (auth_path_url b T q f) /\ path (auth_path_url b T q f) = Some T
  /\ query dbg (auth_path_url b T q f) = Some q /\ fragment dbg (auth_path_url b T q f) = Some f.
Proof.
  intros W Ha HT1 HT2 Hq. set (pre := nfirstn (path_start b) (ser b)).
  destruct (without_query_spec dbg b W) as (W1 & SF1 & SM1 & P1 & Eq1 & Ef1 & Es1 & _).
  set (u1 := without_query b) in *.
  pose proof (wf_auth_facts b W Ha) as F.
  pose proof (af_ue F) as B1. pose proof (af_hs F) as B2. pose proof (af_he F) as B3. pose proof (af_ps F) as B4.
  pose proof (path_start_le_len b W) as B5.
  assert (nfirstn (path_start b) (ser u1) = pre) as Hpre1 by (rewrite Es1; apply before_query_prefix; exact W).
  assert (has_authority_b u1 = true) as Ha1.
  { rewrite <- Ha. apply (has_authority_b_pre (path_start b)); [exact Hpre1 | lia | reflexivity]. }
  pose proof (wp_wf u1 T W1 Ha1 HT1 HT2) as W2. pose proof (wp_front dbg u1 T W1 Ha1 HT1 HT2) as SF2.
  pose proof (wp_path u1 T W1 Ha1 HT1 HT2) as P2.
  set (u2 := with_path u1 T) in *.
  assert (u2 = mkUrl (pre ++ T) (scheme_end b) (username_end b) (host_start b) (host_end b) (hosti b) (port b)
                     (path_start b) None None) as Eu2.
  { unfold u2, with_path. change (path_start u1) with (path_start b). rewrite Hpre1.
    assert (path_end u1 = nlen (ser u1)) as -> by (unfold path_end; rewrite Eq1, Ef1; reflexivity).
    rewrite nskipn_all by lia. rewrite app_nil_r. rewrite Eq1, Ef1. reflexivity. }
  assert (same_front dbg b u2) as SF by (eapply same_front_trans; eassumption).
  assert (query_start u2 = None) as Eq2 by (rewrite Eu2; reflexivity).
  assert (fragment_start u2 = None) as Ef2 by (rewrite Eu2; reflexivity).
  destruct q as [Q|]; destruct f as [x|].
  - destruct (add_query_step dbg u2 Q W2 Ef2 Eq2 Hq) as (W3 & SF3 & SM3 & P3 & Q3 & Ef3).
    destruct (add_fragment_step dbg (add_query u2 Q) x W3 Ef3) as (W4 & SF4 & SM4 & P4 & Q4 & Qs4 & F4).
    assert (auth_path_url b T _ _ = add_fragment (add_query u2 Q) x) as ->.
    { rewrite Eu2. unfold auth_path_url, add_fragment, add_query, set_fragment_start, set_query_start, set_ser, qf_text, qf_qs, qf_fs, qf_qtext, qf_ftext.
      cbn [ser scheme_end username_end host_start host_end hosti port path_start query_start fragment_start].
      f_equal; [rewrite <- !app_assoc; reflexivity|]. f_equal. symmetry. apply nlen_app. }
    split; [exact W4|]. split; [eapply same_front_trans; [exact SF|]; eapply same_front_trans; eassumption|].
    split; [congruence|]. split; [congruence | exact F4].
  - destruct (add_query_step dbg u2 Q W2 Ef2 Eq2 Hq) as (W3 & SF3 & SM3 & P3 & Q3 & Ef3).
    assert (auth_path_url b T _ _ = add_query u2 Q) as ->.
    { rewrite Eu2. unfold auth_path_url, add_query, set_query_start, set_ser, qf_text, qf_qs, qf_fs, qf_qtext, qf_ftext.
      cbn [ser scheme_end username_end host_start host_end hosti port path_start query_start fragment_start].
      rewrite app_nil_r. reflexivity. }
    split; [exact W3|]. split; [eapply same_front_trans; eassumption|].
    split; [congruence|]. split; [exact Q3|]. rewrite (fragment_eval dbg _ W3), Ef3. reflexivity.
  - destruct (add_fragment_step dbg u2 x W2 Ef2) as (W4 & SF4 & SM4 & P4 & Q4 & Qs4 & F4).
    assert (auth_path_url b T _ _ = add_fragment u2 x) as ->.
    { rewrite Eu2. unfold auth_path_url, add_fragment, set_fragment_start, set_ser, qf_text, qf_qs, qf_fs, qf_qtext, qf_ftext.
      cbn [ser scheme_end username_end host_start host_end hosti port path_start query_start fragment_start app].
      change (nlen (@nil N)) with 0. rewrite N.add_0_r. reflexivity. }
    split; [exact W4|]. split; [eapply same_front_trans; eassumption|].
    split; [congruence|]. split; [|exact F4]. rewrite Q4. rewrite (query_eval dbg _ W2), Eq2. reflexivity.
  - assert (auth_path_url b T _ _ = u2) as ->.
    { rewrite Eu2. unfold auth_path_url, qf_text, qf_qs, qf_fs, qf_qtext, qf_ftext. cbn [app]. rewrite app_nil_r. reflexivity. }
    split; [exact W2|]. split; [exact SF|]. split; [exact P2|].
    split; [rewrite (query_eval dbg _ W2), Eq2; reflexivity | rewrite (fragment_eval dbg _ W2), Ef2; reflexivity].
Qed.

(* the Standard's serializer, split at the path *)
(* the URL record the path arms end with: everything in front of the path from the base *)
Definition rel_url (sb : spec_url) (P : list (list N)) (q f : option (list N)) : spec_url :=
  mkSUrl (su_scheme sb) (su_username sb) (su_password sb) (su_host sb) (su_port sb) (SPList P) q f.

Section Front.
Variable dbg : bool.
Variable shs : spec_host -> list N.

Definition spec_front (u : spec_url) : list N :=
  su_scheme u ++ [58]
  ++ match su_host u with
     | Some h =>
         [47; 47]
         ++ (if includes_credentials u then
               su_username u
               ++ (if negb (list_eqb (su_password u) []) then 58 :: su_password u else [])
               ++ [64]
             else [])
         ++ shs h
         ++ match su_port u with Some p => 58 :: serialize_integer p | None => [] end
     | None =>
         match su_path u with
         | SPList (p0 :: _ :: _) => if list_eqb p0 [] then [47; 46] else []
         | _ => []
         end
     end.

Lemma serialize_url_front u excl :
  serialize_url shs u excl
  = spec_front u ++ serialize_path u ++ qf_qtext (su_query u)
    ++ (if excl then [] else qf_ftext (su_fragment u)).
Proof. unfold serialize_url, spec_front, qf_qtext, qf_ftext. rewrite <- !app_assoc. reflexivity. Qed.

Lemma before_query_path_end b : wf_b b = true -> b_before_query b = nfirstn (path_end b) (ser b).
Proof.
  intros W. unfold b_before_query, path_end.
  destruct (query_start b); [reflexivity|]. destruct (fragment_start b); [reflexivity|].
  symmetry. apply nfirstn_all. lia.
Qed.

(* the serialization of a related base in front of its path is the Standard's *)
Lemma related_pre b sb : related dbg shs b sb ->
  b_before_query b = nfirstn (path_start b) (ser b) ++ serialize_path sb
  /\ nfirstn (path_start b) (ser b) = spec_front sb.
Proof.
  intros R. pose proof (rel_wf _ _ _ _ R) as W. pose proof (rel_api _ _ _ _ R) as A.
  rewrite (api_of_model_eval dbg b W) in A. unfold spec_api_list in A.
  injection A as _ _ _ _ _ _ _ E8 _ _. cbn [pidx] in E8. fold (path_end b) in E8.
  destruct (wf_ps_le_path_end b W) as [L1 L2].
  assert (forall k, piece b 0 k = nfirstn k (ser b)) as P0.
  { intros k. unfold piece. rewrite N.sub_0_r, nskipn_0. reflexivity. }
  assert (b_before_query b = nfirstn (path_start b) (ser b) ++ serialize_path sb) as E.
  { rewrite (before_query_path_end b W). rewrite <- !P0.
    rewrite <- (piece_cat b 0 (path_start b) (path_end b)) by lia. rewrite E8. reflexivity. }
  split; [exact E|].
  pose proof (rel_bq _ _ _ _ R) as Bq. rewrite serialize_url_front in Bq.
  assert (spec_front (set_query sb None) = spec_front sb) as E1 by (destruct sb; reflexivity).
  assert (serialize_path (set_query sb None) = serialize_path sb) as E2 by (destruct sb; reflexivity).
  assert (su_query (set_query sb None) = None) as E3 by (destruct sb; reflexivity).
  rewrite E1, E2, E3 in Bq. cbn [qf_qtext app] in Bq. rewrite app_nil_r in Bq.
  rewrite E in Bq. apply app_inv_tail in Bq. exact Bq.
Qed.

Lemma nnth_nfirstn_lt l k i : i < k -> nnth (nfirstn k l) i = nnth l i.
Proof.
  intros H. apply (pre_nnth k l (nfirstn k l) i); [apply agree_pre_trunc | exact H].
Qed.

(* a base with authority has a host in the Standard's record, and conversely *)
Lemma related_host_iff b sb : related dbg shs b sb ->
  has_authority_b b = match su_host sb with Some _ => true | None => false end.
Proof.
  intros R. pose proof (rel_wf _ _ _ _ R) as W. destruct (related_pre b sb R) as [_ Epre].
  destruct (related_scheme_colon dbg shs b sb R) as (_ & Ese & _).
  pose proof (path_start_le_len b W) as Lps.
  assert (nlen (spec_front sb) = path_start b) as Lf by (rewrite <- Epre; apply nlen_nfirstn; exact Lps).
  destruct (has_authority_b b) eqn:Ha.
  - destruct (su_host sb) as [h|] eqn:Eh; [reflexivity|]. exfalso.
    pose proof (wf_auth_facts b W Ha) as F.
    pose proof (af_ue F) as B1. pose proof (af_hs F) as B2. pose proof (af_he F) as B3. pose proof (af_ps F) as B4.
    unfold has_authority_b in Ha. destruct (css_bytes _ _ Ha) as (_ & _ & C3).
    rewrite <- (nnth_nfirstn_lt (ser b) (path_start b)) in C3 by lia. rewrite Epre in C3.
    unfold spec_front in C3, Lf. rewrite Eh in C3, Lf. rewrite Ese in *.
    destruct (su_path sb) as [o|[|p0 [|p1 pr]]]; try (rewrite nlen_app in Lf; unfold nlen in Lf at 2; cbn [length app] in Lf; lia).
    destruct (list_eqb p0 []); [|rewrite nlen_app in Lf; unfold nlen in Lf at 2; cbn [length app] in Lf; lia].
    rewrite nnth_app_ge in C3 by lia. replace (nlen (su_scheme sb) + 2 - nlen (su_scheme sb)) with 2 in C3 by lia.
    discriminate C3.
  - destruct (su_host sb) as [h|] eqn:Eh; [|reflexivity]. exfalso.
    assert (exists X, spec_front sb = su_scheme sb ++ [58; 47; 47] ++ X) as [X EX].
    { unfold spec_front. rewrite Eh. eexists. cbn [app]. reflexivity. }
    assert (scheme_end b + 3 <= path_start b) as L3 by (rewrite <- Lf, EX, Ese; lenl).
    assert (has_authority_b b = true) as Ha'; [|congruence].
    unfold has_authority_b.
    rewrite (pre_starts_with (path_start b) (nfirstn (path_start b) (ser b)) (ser b) s_css (scheme_end b)).
    + rewrite Epre, EX, Ese, nskipn_app_len. reflexivity.
    + apply agree_pre_sym. apply agree_pre_trunc.
    + change (nlen s_css) with 3. exact L3.
Qed.

(* the base record, cut at the path: the serialization up to the path, the Standard's segments in one text,
   and no '?' / '#' in that text *)
Lemma base_path_facts b sb : related dbg shs b sb -> has_opaque_path sb = false ->
  nlen (nfirstn (path_start b) (ser b)) = path_start b
  /\ b_before_query b = nfirstn (path_start b) (ser b) ++ flat_map (fun s => 47 :: s) (Whatwg.path_segments sb)
  /\ forallb no_qh (flat_map (fun s => 47 :: s) (Whatwg.path_segments sb)) = true.
Proof.
  intros R Hop. pose proof (rel_wf _ _ _ _ R) as W. pose proof (path_start_le_len b W) as Lps.
  set (P := Whatwg.path_segments sb). set (pre := nfirstn (path_start b) (ser b)).
  destruct (related_pre b sb R) as [Ebq _]. fold pre in Ebq.
  assert (serialize_path sb = flat_map (fun s => 47 :: s) P) as EPth.
  { unfold serialize_path, P, Whatwg.path_segments. unfold has_opaque_path in Hop. destruct (su_path sb); [discriminate Hop | reflexivity]. }
  rewrite EPth in Ebq. split; [apply nlen_nfirstn; exact Lps|]. split; [exact Ebq|].
  pose proof (qf_facts_of b W) as (_ & _ & _ & Q4 & _).
  pose proof (before_query_path_end b W) as E. rewrite Ebq in E.
  destruct (wf_ps_le_path_end b W) as [L1 L2].
  assert (nfirstn (path_end b - path_start b) (nskipn (path_start b) (ser b)) = flat_map (fun s => 47 :: s) P) as EE.
  { rewrite <- (nfirstn_nskipn (path_start b) (nfirstn (path_end b) (ser b))) in E.
    rewrite nfirstn_nfirstn in E by lia. fold pre in E. apply app_inv_head in E. rewrite E.
    unfold nskipn, nfirstn. rewrite N2Nat.inj_sub. rewrite firstn_skipn_comm.
    replace (N.to_nat (path_start b) + (N.to_nat (path_end b) - N.to_nat (path_start b)))%nat with (N.to_nat (path_end b)) by lia.
    reflexivity. }
  rewrite EE in Q4. exact Q4.
Qed.

End Front.

(* the two result shapes are related to the Standard's record *)
Section Transport.
Variable dbg : bool.
Variable shs : spec_host -> list N.

(* base with authority: the record with the replaced path; what `spec_valid` asks of a file URL (no
   credentials, no port) is inherited from the base *)
Theorem related_auth_path_all b sb h Pn q f :
  related dbg shs b sb -> su_host sb = Some h ->
  forallb no_qh (flat_map (fun s => 47 :: s) Pn) = true -> Pn <> [] ->
  match q with Some Q => forallb no_h Q = true | None => True end ->
  related dbg shs (auth_path_url b (flat_map (fun s => 47 :: s) Pn) q f) (rel_url sb Pn q f).
Proof.
  intros R Eh HT HPn Hq'.
  pose proof (rel_wf _ _ _ _ R) as W.
  assert (has_authority_b b = true) as Ha by (rewrite (related_host_iff dbg shs b sb R), Eh; reflexivity).
  set (T := flat_map (fun s => 47 :: s) Pn) in *.
  assert (T = [] \/ exists r, T = 47 :: r) as HT2.
  { right. unfold T. destruct Pn as [|p0 Pr]; [contradiction|]. eexists. reflexivity. }
  destruct (auth_path_record dbg b T q f W Ha HT HT2 Hq') as (W' & SF & Pth & Qy & Fr).
  assert (ser (auth_path_url b T q f) = (nfirstn (path_start b) (ser b) ++ T) ++ qf_text q f) as EsU by reflexivity.
  assert (query_start (auth_path_url b T q f) = qf_qs (nlen (nfirstn (path_start b) (ser b) ++ T)) q) as EqU by reflexivity.
  assert (fragment_start (auth_path_url b T q f) = qf_fs (nlen (nfirstn (path_start b) (ser b) ++ T)) q f) as EfU by reflexivity.
  assert (scheme_end (auth_path_url b T q f) = scheme_end b) as EseU by reflexivity.
  set (U := auth_path_url b T q f) in *.
  destruct SF as (S1 & S2 & S3 & S4 & S5).
  destruct (accessors_reconcatenate dbg b W)
    as (sch & un & pw & hs & pth & qb & fb & Es1 & Eun & Epw & Ehs & Ept & Eq & Ef & _).
  pose proof (api_by_accessors dbg b W sch un pw hs pth qb fb Es1 Eun Epw Ehs Ept Eq Ef) as Ab.
  assert (api_of_model dbg U = Some (api_of_parts (ser U) sch un pw hs (port U) T q f)) as Ab'.
  { apply (api_by_accessors dbg _ W'); congruence. }
  rewrite (rel_api _ _ _ _ R) in Ab. unfold api_of_parts, spec_api_list in Ab.
  injection Ab as E1 E2 E3 E4 E5 E6 E7 E8 E9 E10.
  destruct (related_pre dbg shs b sb R) as [_ Epre].
  pose proof (path_start_le_len b W) as Lps.
  set (pre := nfirstn (path_start b) (ser b)) in *.
  assert (nlen pre = path_start b) as Lpre by (apply nlen_nfirstn; exact Lps).
  assert (forall q' f', spec_front shs (rel_url sb Pn q' f') = pre) as EF.
  { intros q' f'. rewrite Epre. unfold spec_front, includes_credentials, rel_url.
    cbn [su_scheme su_host su_username su_password su_port]. rewrite Eh. reflexivity. }
  pose proof (wf_auth_facts b W Ha) as F.
  pose proof (af_ue F) as B1. pose proof (af_hs F) as B2. pose proof (af_he F) as B3. pose proof (af_ps F) as B4.
  assert (agree_pre (path_start b) (ser b) (ser U)) as Pre.
  { rewrite EsU, <- app_assoc. apply agree_pre_nfirstn. exact Lps. }
  constructor.
  - exact W'.
  - rewrite Ab'. f_equal. unfold api_of_parts, spec_api_list. rewrite S5.
    apply list10_eq; [ | symmetry; exact E2 | symmetry; exact E3 | symmetry; exact E4 | symmetry; exact E5
                       | symmetry; exact E6 | symmetry; exact E7 | reflexivity | | ].
    + rewrite EsU. unfold get_href. rewrite serialize_url_front, EF.
      unfold rel_url, serialize_path. cbn [su_path su_query su_fragment]. fold T. unfold qf_text.
      rewrite <- !app_assoc. reflexivity.
    + destruct q as [[|a r]|]; reflexivity.
    + destruct f as [[|a r]|]; reflexivity.
  - (* before the fragment *)
    rewrite serialize_url_front, EF. unfold rel_url, serialize_path. cbn [su_path su_query su_fragment]. fold T.
    rewrite app_nil_r. unfold b_before_fragment. rewrite EfU, EsU. unfold qf_text.
    destruct f as [y|]; cbn [qf_fs qf_ftext].
    + rewrite <- nlen_app. rewrite app_assoc. rewrite nfirstn_app_exact. rewrite <- app_assoc. reflexivity.
    + rewrite app_nil_r, <- app_assoc. reflexivity.
  - (* before the query *)
    rewrite serialize_url_front.
    assert (set_query (rel_url sb Pn q f) None = rel_url sb Pn None f) as -> by reflexivity.
    rewrite EF. unfold rel_url, serialize_path. cbn [su_path su_query su_fragment qf_qtext app]. fold T.
    rewrite app_nil_r. unfold b_before_query. rewrite EqU, EfU, EsU. unfold qf_text.
    destruct q as [x|]; destruct f as [y|]; cbn [qf_qs qf_fs qf_qtext qf_ftext].
    + apply nfirstn_app_exact.
    + apply nfirstn_app_exact.
    + cbn [app]. rewrite nlen_nil, N.add_0_r. apply nfirstn_app_exact.
    + cbn [app]. apply app_nil_r.
  - (* cannot be a base *)
    rewrite (cannot_be_a_base_eval _ W'). cbn [has_opaque_path su_path rel_url]. f_equal.
    rewrite EseU. rewrite (pre_byte_eqb (path_start b) _ _ _ _ Pre) by lia.
    unfold has_authority_b in Ha. destruct (css_bytes _ _ Ha) as (_ & C2 & _).
    assert (byte_eqb (ser b) (scheme_end b + 1) 47 = true) as -> by (apply byte_eqb_true_iff; exact C2). reflexivity.
  - (* scheme *)
    transitivity (b_scheme b); [|exact (rel_sch _ _ _ _ R)]. unfold b_scheme. rewrite EseU.
    apply (pre_firstn _ _ _ _ Pre). lia.
  - destruct (rel_valid _ _ _ _ R) as [_ V]. split; [intros H; discriminate H | exact V].
Qed.

Theorem related_auth_path_g b sb h Pn q f :
  related dbg shs b sb -> su_scheme sb <> str_file -> su_host sb = Some h ->
  forallb no_qh (flat_map (fun s => 47 :: s) Pn) = true -> Pn <> [] ->
  match q with Some Q => forallb no_h Q = true | None => True end ->
  related dbg shs (auth_path_url b (flat_map (fun s => 47 :: s) Pn) q f) (rel_url sb Pn q f).
Proof. intros R _. exact (related_auth_path_all b sb h Pn q f R). Qed.

Theorem related_auth_path b sb h Pn q f :
  related dbg shs b sb -> is_special_scheme (su_scheme sb) = false -> su_host sb = Some h ->
  forallb no_qh (flat_map (fun s => 47 :: s) Pn) = true -> Pn <> [] -> opt_clean T_QUERY q ->
  related dbg shs (auth_path_url b (flat_map (fun s => 47 :: s) Pn) q f) (rel_url sb Pn q f).
Proof.
  intros R Hnsp Eh HT HPn Hq. apply (related_auth_path_g b sb h Pn q f R); try assumption.
  - intros H. rewrite H in Hnsp. discriminate Hnsp.
  - destruct q as [Q|]; [|exact I]. exact (clean_query_no_h STNotSpecial Q Hq).
Qed.

End Transport.
