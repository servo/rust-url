(* Proofs/C01_EqEnc.v - bridges between the two sides of the C01 equivalence that do not depend on a
   parser state: the percent-encoders (per UTF-8 byte with a table-driven set on the model side, per
   code point with a predicate on the specification side), the input preprocessing, and the scheme
   state (C01_eq_scheme_state). *)
From RU Require Import Base.Prelude Base.Utf8 Model.AsciiSet Gen.Tables Model.PercentEncoding Model.Parser
  Spec.Whatwg Proofs.C14_Enc Proofs.C02_Parts Proofs.C01_Tables Proofs.C08_Input Proofs.C01_EqRun.

(* encoders *)
(* a model set and a set of the Standard agree: same answer on every ASCII byte, and the Standard's
   set contains every code point above '~' *)
Definition set_rel (S : aset) (inset : N -> bool) : Prop :=
  (forall b, b < 128 -> should_encode S b = inset b) /\ (forall c, 126 < c -> inset c = true).

Lemma should_encode_high S b : 128 <= b -> should_encode S b = true.
Proof. intros H. unfold should_encode. replace (128 <=? b) with true by lia. reflexivity. Qed.

Lemma enc_bridge1 S inset c : set_rel S inset ->
  encode S (utf8_encode1 c) = utf8_percent_encode_cp inset c.
Proof.
  intros [Hlow Hhigh]. unfold utf8_percent_encode_cp, utf8_encode. cbn [flat_map]. rewrite app_nil_r.
  unfold utf8_encode1. destruct (c <? 128) eqn:E1.
  - unfold encode. cbn [flat_map]. rewrite app_nil_r. rewrite (Hlow c) by lia.
    destruct (inset c); reflexivity.
  - rewrite (Hhigh c) by lia.
    destruct (c <? 2048); [|destruct (c <? 65536)]; unfold encode; cbn [flat_map];
      rewrite !should_encode_high by lia; reflexivity.
Qed.

(* `pe_display S (utf8_encode cs)` of the model = concatenation of the Standard's per-code-point
   encodings, for sets that agree *)
Theorem enc_bridge S inset cs : set_rel S inset ->
  encode S (utf8_encode cs) = utf8_percent_encode inset cs.
Proof.
  intros HR. induction cs as [|c r IH]; [reflexivity|].
  change (utf8_encode (c :: r)) with (utf8_encode1 c ++ utf8_encode r).
  rewrite encode_app, IH, (enc_bridge1 S inset c HR). reflexivity.
Qed.

Corollary pe_display_bridge S inset cs : set_rel S inset -> usv_list cs ->
  pe_display S (utf8_encode cs) = utf8_percent_encode inset cs.
Proof. intros HR Hu. rewrite pe_display_utf8 by exact Hu. apply enc_bridge. exact HR. Qed.

Lemma set_rel_of_tables S inset :
  (forall b, b < 256 -> should_encode S b = inset b) -> (forall c, 126 < c -> inset c = true) -> set_rel S inset.
Proof. intros H1 H2. split; [intros b Hb; apply H1; lia | exact H2]. Qed.

Lemma rel_CONTROLS : set_rel T_CONTROLS in_c0_control_set.
Proof.
  apply set_rel_of_tables; [intros b Hb; exact (proj1 (tables_are_the_standards b Hb))|].
  intros c Hc. exact (proj1 (spec_sets_contain_non_ascii c Hc)).
Qed.
Lemma rel_FRAGMENT : set_rel T_FRAGMENT in_fragment_set.
Proof.
  apply set_rel_of_tables; [intros b Hb; exact (proj1 (proj2 (tables_are_the_standards b Hb)))|].
  intros c Hc. exact (proj1 (proj2 (spec_sets_contain_non_ascii c Hc))).
Qed.
Lemma rel_QUERY : set_rel T_QUERY in_query_set.
Proof.
  apply set_rel_of_tables; [intros b Hb; exact (proj1 (proj2 (proj2 (tables_are_the_standards b Hb))))|].
  intros c Hc. exact (proj1 (proj2 (proj2 (spec_sets_contain_non_ascii c Hc)))).
Qed.
Lemma rel_SPECIAL_QUERY : set_rel T_SPECIAL_QUERY in_special_query_set.
Proof.
  apply set_rel_of_tables; [intros b Hb; exact (proj1 (proj2 (proj2 (proj2 (tables_are_the_standards b Hb)))))|].
  intros c Hc. exact (proj1 (proj2 (proj2 (proj2 (spec_sets_contain_non_ascii c Hc))))).
Qed.
Lemma rel_PATH : set_rel T_PATH in_path_set.
Proof.
  apply set_rel_of_tables; [intros b Hb; exact (proj1 (proj2 (proj2 (proj2 (proj2 (tables_are_the_standards b Hb))))))|].
  intros c Hc. exact (proj1 (proj2 (proj2 (proj2 (proj2 (spec_sets_contain_non_ascii c Hc)))))).
Qed.
Lemma rel_USERINFO : set_rel T_USERINFO in_userinfo_set.
Proof.
  apply set_rel_of_tables; [intros b Hb; exact (proj2 (proj2 (proj2 (proj2 (proj2 (tables_are_the_standards b Hb))))))|].
  intros c Hc. exact (proj2 (proj2 (proj2 (proj2 (proj2 (spec_sets_contain_non_ascii c Hc)))))).
Qed.

Theorem encoders_agree cs :
  encode T_CONTROLS (utf8_encode cs) = utf8_percent_encode in_c0_control_set cs
  /\ encode T_FRAGMENT (utf8_encode cs) = utf8_percent_encode in_fragment_set cs
  /\ encode T_QUERY (utf8_encode cs) = utf8_percent_encode in_query_set cs
  /\ encode T_SPECIAL_QUERY (utf8_encode cs) = utf8_percent_encode in_special_query_set cs
  /\ encode T_PATH (utf8_encode cs) = utf8_percent_encode in_path_set cs
  /\ encode T_USERINFO (utf8_encode cs) = utf8_percent_encode in_userinfo_set cs.
Proof.
  repeat split; apply enc_bridge;
    [exact rel_CONTROLS | exact rel_FRAGMENT | exact rel_QUERY | exact rel_SPECIAL_QUERY | exact rel_PATH | exact rel_USERINFO].
Qed.

(* preprocessing *)
Lemma drop_leading_is_drop_while f g l : (forall c, f c = g c) -> drop_leading f l = drop_while g l.
Proof. intros H. induction l as [|c r IH]; [reflexivity|]. cbn [drop_leading drop_while]. rewrite H, IH. reflexivity. Qed.

Lemma c0_or_space_same c : is_c0_control_or_space c = is_c0_or_space c.
Proof. unfold is_c0_control_or_space, is_c0_control, is_c0_or_space. lia. Qed.

(* the text the specification's state machine runs on = the model's trimmed input without the
   code points its iterator skips *)
Theorem spec_clean_is_ntnl_trim raw : spec_clean raw = ntnl (input_new_trim_c0 raw).
Proof.
  unfold spec_clean, ntnl, input_new_trim_c0, trim_matches, strip_leading_and_trailing, strip_trailing.
  rewrite (drop_leading_is_drop_while _ _ raw c0_or_space_same).
  rewrite (drop_leading_is_drop_while _ _ (rev (drop_while is_c0_or_space raw)) c0_or_space_same).
  reflexivity.
Qed.

(* scheme state *)
Lemma scheme_loop_eq l : forall acc_rev,
  match parse_scheme_loop CUrlParser acc_rev l, scheme_scan (rev acc_rev) (ntnl l) with
  | Some (s, r), Some (s', r') => s = s' /\ ntnl r = r'
  | None, None => True
  | _, _ => False
  end.
Proof.
  induction l as [|c r IH]; intros acc; [exact I|]. cbn [parse_scheme_loop ctx_eqb].
  destruct (is_tnl c) eqn:Et.
  - rewrite ntnl_cons_tnl by exact Et. apply IH.
  - rewrite ntnl_cons by exact Et. cbn [scheme_scan]. unfold is_scheme_cp, is_alnum, is_alpha.
    destruct (is_lower c || is_digit c || (c =? 43) || (c =? 45) || (c =? 46)) eqn:E1.
    + assert (is_upper c = false) as Eu by (unfold is_upper, is_lower, is_digit in *; lia).
      replace (is_upper c || is_lower c || is_digit c || (c =? 43) || (c =? 45) || (c =? 46)) with true
        by (rewrite Eu; cbn [orb]; symmetry; exact E1).
      unfold to_lower. rewrite Eu. specialize (IH (c :: acc)). cbn [rev] in IH. exact IH.
    + destruct (is_upper c) eqn:Eu.
      * cbn [orb]. unfold to_lower. rewrite Eu. specialize (IH ((c + 32) :: acc)). cbn [rev] in IH. exact IH.
      * replace (false || is_lower c || is_digit c || (c =? 43) || (c =? 45) || (c =? 46)) with false
          by (symmetry; exact E1).
        destruct (c =? 58); [split; reflexivity | exact I].
Qed.

(* C01_eq_scheme_state: on every input the model's parse_scheme and the Standard's scheme start /
   scheme states yield the same lower-cased scheme and the same remaining text (the model's still
   carries the tab / newline code points its iterator skips), or both fall to "no scheme" *)
Theorem scheme_state_eq l :
  match parse_scheme CUrlParser l, spec_scheme (ntnl l) with
  | Some (s, r), Some (s', r') => s = s' /\ ntnl r = r'
  | None, None => True
  | _, _ => False
  end.
Proof.
  unfold parse_scheme, inp_starts_with_pred, spec_scheme.
  destruct (inp_next l) as [[c r]|] eqn:En.
  - destruct (inp_next_ntnl l c r En) as [E _]. rewrite E.
    destruct (is_alpha c); [|exact I]. rewrite <- E. exact (scheme_loop_eq l []).
  - rewrite (inp_next_none_ntnl l En). exact I.
Qed.

Corollary scheme_state_some l s r : parse_scheme CUrlParser l = Some (s, r) ->
  spec_scheme (ntnl l) = Some (s, ntnl r).
Proof.
  intros H. pose proof (scheme_state_eq l) as K. rewrite H in K.
  destruct (spec_scheme (ntnl l)) as [[s' r']|]; [|contradiction]. destruct K as [-> <-]. reflexivity.
Qed.

Corollary scheme_state_none l : parse_scheme CUrlParser l = None -> spec_scheme (ntnl l) = None.
Proof.
  intros H. pose proof (scheme_state_eq l) as K. rewrite H in K.
  destruct (spec_scheme (ntnl l)) as [[s' r']|]; [contradiction | reflexivity].
Qed.
