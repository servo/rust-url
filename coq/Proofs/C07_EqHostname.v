(* Proofs/C07_EqHostname.v - C07 equivalence for the hostname setter on URLs whose scheme is not "file":
   on every pair of records related by corrS, for every value outside classes 2, 3, 4 of Known_C07
   (':' outside brackets in the value, F-C07-1; a URL without host whose path starts with "//",
   F-C07-2; file URLs, F-C07-10), url::quirks::set_hostname does not panic and leaves a record
   related to the result of the Standard's hostname attribute setter (host state with the state
   override "hostname state").  The host parsers of the two sides are arbitrary functions that agree
   (host_fns_ok): same success, same text, the text is empty for the empty host and otherwise starts
   with neither ':' nor '@', and the empty host is the result exactly for the empty string. *)
From RU Require Import Base.Prelude Base.Utf8 Base.Utf8Facts Model.AsciiSet Gen.Tables Model.PercentEncoding
  Model.HostT Model.UrlRecord Model.Parser Model.Setters Model.WF Model.KnownC01 Model.KnownC07 Spec.Whatwg
  Proofs.ListN Proofs.C03_WF Proofs.C06_List Proofs.C06_WFI Proofs.C06_Tail Proofs.C06_Suffix Proofs.C06_Front
  Proofs.C06_Steps Proofs.C06_FragQuery Proofs.C06_Port Proofs.C06_Host Proofs.C08_Input
  Proofs.C02_Enc Proofs.C01_Tables Proofs.C01_EqRun Proofs.C01_EqEnc Proofs.C01_EqApi Proofs.C01_EqAuthSpec
  Proofs.C07_Defs Proofs.C07_Setters Proofs.C07_Corr Proofs.C07_SpecRun Proofs.C07_EqCred Proofs.C07_EqPort
  Proofs.C07_SpecProto Proofs.C07_EqProto Proofs.C07_SpecHost Proofs.C07_SpecHostPort Proofs.C07_EqHostLayout.

(* the host functions of the two sides *)
Definition host_fn_ok (hf : list N -> result host) (hd : host -> list N)
           (shp : bool -> list N -> option spec_host) (shs : spec_host -> list N) (o : bool) : Prop :=
  forall s, match hf s, host_parsing shp o s with
            | Ok h, Some sh => hd h = shs sh /\ host_disp_ok hd h
                               /\ (h = HDomain [] <-> sh = SEmpty) /\ (h = HDomain [] <-> s = [])
            | Err _, None => True
            | _, _ => False
            end.
Definition host_fns_ok (hp ho : list N -> result host) (hd : host -> list N)
           (shp : bool -> list N -> option spec_host) (shs : spec_host -> list N) : Prop :=
  host_fn_ok hp hd shp shs false /\ host_fn_ok ho hd shp shs true.

Lemma host_fns_empty_only hp ho hd shp shs : host_fns_ok hp ho hd shp shs -> empty_only shp.
Proof.
  intros [H0 H1] o s E. destruct o.
  - specialize (H1 s). rewrite E in H1. destruct (ho s) as [h|e]; [|contradiction].
    destruct H1 as (_ & _ & A & B). apply B. apply A. reflexivity.
  - specialize (H0 s). rewrite E in H0. destruct (hp s) as [h|e]; [|contradiction].
    destruct H0 as (_ & _ & A & B). apply B. apply A. reflexivity.
Qed.

Lemma hi_some_false_iff h : hi_some (hi_of_host h) = false <-> h = HDomain [].
Proof.
  destruct h as [[|a b]| |]; cbn; split; intros H; try reflexivity; try discriminate H.
Qed.

(* related records are tight, with or without a host *)
Lemma corr_tight_all dbg shs u su : corr dbg shs u su -> has_authority_b u = true -> tight u.
Proof.
  intros C Ha. destruct (has_host u) eqn:Hh; [exact (corr_tight dbg shs u su C Hh)|].
  intros Heq. pose proof (co_wf _ _ _ _ C) as W.
  destruct (byte_eqb (ser u) (username_end u) 64) eqn:B; [exfalso|reflexivity].
  pose proof W as W0. apply wf_b_iff in W0. rewrite Ha in W0.
  destruct W0 as (_ & ((_ & _ & _ & _ & _ & UI & Hn & P) & PS) & _).
  assert (hosti u = HI_None) as Ehi by (unfold has_host in Hh; destruct (hosti u); [reflexivity | discriminate ..]).
  specialize (Hn Ehi).
  destruct UI as [(U1 & U2 & U3)|[(U1 & U2 & U3)|(U1 & U2)]].
  - (* no userinfo: the byte after the (empty) host is ':' of a port or the start of the path *)
    rewrite U1, Hn in B. unfold port_ok in P. destruct (port u) as [p|].
    + destruct P as (P1 & _). rewrite (byte_eqb_excl _ _ 58 64) in B by (try lia; exact P1). discriminate B.
    + rewrite <- P in B. destruct PS as [PS|[PS|[PS|PS]]].
      * apply byte_eqb_true_iff in B. apply nnth_lt in B. lia.
      * rewrite (byte_eqb_excl _ _ 47 64) in B by (try lia; exact PS). discriminate B.
      * rewrite (byte_eqb_excl _ _ 63 64) in B by (try lia; exact PS). discriminate B.
      * rewrite (byte_eqb_excl _ _ 35 64) in B by (try lia; exact PS). discriminate B.
  - rewrite (byte_eqb_excl _ _ 64 58) in U1 by (try lia; exact B). discriminate U1.
  - (* "//@": the '@' is there but both credentials are empty *)
    pose proof (co_at _ _ _ _ C) as At. rewrite Ha in At.
    replace (username_end u =? host_start u) with false in At by lia. cbn [andb negb] in At.
    pose proof (co_user _ _ _ _ C) as Eun. rewrite (username_eval dbg u W) in Eun. injection Eun as Eun.
    cbn [pidx] in Eun. rewrite Ha, Heq, piece_empty in Eun.
    pose proof (co_pass _ _ _ _ C) as Epw. rewrite (password_piece dbg u W) in Epw. injection Epw as Epw.
    assert (has_password_b u = false) as Hp.
    { unfold has_password_b. rewrite (byte_eqb_excl _ _ 64 58) by (try lia; exact B). apply andb_false_r. }
    rewrite Hp in Epw. unfold includes_credentials in At. rewrite <- Eun in At.
    destruct (su_password su); [discriminate At | discriminate Epw].
Qed.


(* the accessors behind the ten API strings *)
Lemma api_parts dbg u l : api_of_model dbg u = Some l ->
  exists pr un pw h hn po pa se ha,
    username dbg u = Some un /\ q_password dbg u = Some pw /\ q_port dbg u = Some po
    /\ l = [q_href u; pr; un; pw; h; hn; po; pa; se; ha].
Proof.
  unfold api_of_model, q_username. intros H.
  repeat match type of H with bindo ?x _ = Some _ => destruct x eqn:?; cbn [bindo] in H; [|discriminate H] end.
  injection H as <-. do 9 eexists. repeat split; reflexivity.
Qed.

(* the three texts that the code inspects before it accepts an empty host *)
Lemma corr_cred_port_texts dbg shs u su : corr dbg shs u su ->
  exists po un pw, q_port dbg u = Some po /\ username dbg u = Some un /\ q_password dbg u = Some pw
    /\ negb (is_nil po) || negb (is_nil un) || negb (is_nil pw) = includes_credentials su || opt_is_some (su_port su).
Proof.
  intros C. pose proof (corr_api dbg shs u su C) as A. change (model_api dbg u) with (api_of_model dbg u) in A.
  destruct (api_parts dbg u _ A) as (pr & un & pw & h & hn & po & pa & se & ha & E1 & E2 & E3 & El).
  unfold spec_api_list in El. inversion El; subst.
  exists (get_port su), (get_username su), (get_password su). split; [exact E3|]. split; [exact E1|]. split; [exact E2|].
  unfold get_port, get_username, get_password, includes_credentials.
  destruct (su_port su) as [p|]; cbn [opt_is_some is_nil negb orb].
  - pose proof (serialize_integer_ne p) as Hne. destruct (serialize_integer p); [contradiction|].
    cbn [is_nil negb orb]. rewrite orb_true_r. reflexivity.
  - rewrite orb_false_r. destruct (su_username su); destruct (su_password su); reflexivity.
Qed.

Section Hostname.
Variable dbg : bool.
Variable hp ho : list N -> result host.
Variable hd : host -> list N.
Variable shp : bool -> list N -> option spec_host.
Variable shs : spec_host -> list N.

Notation corr := (corr dbg shs).

(* the host of a related pair is replaced on both sides *)
Lemma corr_set_host u su h sh : corr u su -> has_opaque_path su = false ->
  hd h = shs sh -> host_disp_ok hd h -> (h = HDomain [] <-> sh = SEmpty) ->
  (h = HDomain [] -> su_port su = None) ->
  (has_host u = false -> starts_with s_ss (serialize_path su) = false) ->
  exists u', set_host_internal dbg hd u h None = Some u' /\ corr u' (Whatwg.set_host su (Some sh)).
Proof.
  intros C Hop Etxt Hdo Hem Hpo Hk3. pose proof (co_wf _ _ _ _ C) as W. pose proof (co_ht _ _ _ _ C) as HT.
  (* not an opaque path: the byte after ':' is '/' *)
  assert (byte_eqb (ser u) (scheme_end u + 1) 47 = true) as Hsl.
  { pose proof (co_opaque _ _ _ _ C) as Eo. rewrite Hop in Eo. unfold is_opaque_b in Eo.
    apply negb_false_iff in Eo. exact Eo. }
  (* without authority there is no "/." marker (class 3 is excluded) *)
  assert (has_authority_b u = false -> path_start u = scheme_end u + 1) as Hx2.
  { intros Ha. pose proof (wf_noauth_facts u W Ha) as F. destruct (nf_ps F) as [E|(E & _)]; [exact E|exfalso].
    pose proof (co_marker _ _ _ _ C) as Em. rewrite Ha in Em. cbn [negb andb] in Em.
    replace (path_start u =? scheme_end u + 3) with true in Em by lia.
    assert (has_host u = false) as Hh by (unfold has_host; rewrite (nf_host F); reflexivity).
    specialize (Hk3 Hh). unfold spec_marker in Em. unfold serialize_path in Hk3.
    destruct (su_host su); [discriminate Em|]. destruct (su_path su) as [p|[|p0 [|p1 pr]]]; try discriminate Em.
    destruct p0; [|discriminate Em]. discriminate Hk3. }
  assert (has_authority_b u = true -> hi_of_host h = HI_None -> port u = None) as Hx1.
  { intros _ Hh. rewrite (co_port _ _ _ _ C). apply Hpo. destruct h as [[|a b]| |]; try discriminate Hh; reflexivity. }
  destruct (set_host_internal_ok dbg hd u h W Hdo Hx1 (fun Ha => conj (Hx2 Ha) Hsl))
    as (u' & E & W' & HT' & F1 & F2 & F3 & F5 & (B1 & B2 & B3) & F4 & Fhi).
  exists u'. split; [exact E|].
  (* the shape of u': an authority, and no "//@" *)
  assert (has_authority_b u' = true /\ tight u') as [Ha' T'].
  { rewrite (set_host_internal_eval dbg hd u h W Hx2) in E. injection E as E. subst u'.
    destruct (host_disp_ok_cases _ _ Hdo) as [(Ehi & Ed)|(Ehi & Hcr)]; destruct (has_authority_b u) eqn:Ha.
    - assert (port u = None) as Ep.
      { apply Hx1; [reflexivity|]. destruct (hi_of_host h); [reflexivity | discriminate ..]. }
      split; [apply wha_has_authority; assumption|].
      apply wha_tight; [assumption | assumption | left; auto | exact (corr_tight_all dbg shs u su C Ha)].
    - split; [apply whn_has_authority; auto|]. apply whn_tight; auto.
    - split; [apply wha_has_authority; assumption|].
      apply wha_tight; [assumption | assumption | right; auto | exact (corr_tight_all dbg shs u su C Ha)].
    - split; [apply whn_has_authority; auto|]. apply whn_tight; auto. }
  assert (has_host u' = hi_some (hi_of_host h)) as Ehh'.
  { unfold has_host. rewrite Fhi. destruct (hi_of_host h); reflexivity. }
  constructor; cbn [Whatwg.set_host su_scheme su_username su_password su_host su_port su_path su_query su_fragment].
  - exact W'.
  - exact HT'.
  - rewrite F1. exact (co_scheme _ _ _ _ C).
  - rewrite F2. exact (co_user _ _ _ _ C).
  - rewrite F3. exact (co_pass _ _ _ _ C).
  - rewrite F4. cbn [host_text option_map serialize_host_opt]. rewrite <- Etxt.
    destruct (hi_some (hi_of_host h)) eqn:Ehs; [reflexivity|]. cbn [optl].
    unfold host_disp_ok in Hdo. destruct (hi_of_host h); try discriminate Ehs. rewrite Hdo. reflexivity.
  - rewrite Ehh'. cbn [host_is_null orb].
    destruct (hi_some (hi_of_host h)) eqn:Ehs.
    + destruct sh; try reflexivity. exfalso.
      assert (h = HDomain []) as Eh by (apply Hem; reflexivity).
      apply hi_some_false_iff in Eh. congruence.
    + apply hi_some_false_iff in Ehs. apply Hem in Ehs. subst sh. reflexivity.
  - exact Ha'.
  - rewrite Ha'. cbn [andb].
    rewrite (at_flag_by_accessors dbg u' _ _ W' Ha' T'
               (eq_trans F2 (co_user _ _ _ _ C)) (eq_trans F3 (co_pass _ _ _ _ C))).
    rewrite opt_is_some_pw_opt. reflexivity.
  - rewrite F5. exact (co_port _ _ _ _ C).
  - rewrite B1. exact (co_path _ _ _ _ C).
  - rewrite B2. exact (co_query _ _ _ _ C).
  - rewrite B3. exact (co_frag _ _ _ _ C).
  - rewrite Ha'. reflexivity.
  - pose proof (co_path _ _ _ _ C) as Ept.
    assert (path u' = Some (serialize_path su)) as Ept' by (rewrite B1; exact Ept).
    rewrite (is_opaque_by_path u' _ W' Ept'), Ha'. cbn [negb andb].
    unfold has_opaque_path in *. cbn [Whatwg.set_host su_path]. symmetry. exact Hop.
  - exact (co_uclean _ _ _ _ C).
Qed.

Theorem hostname_step u su v : host_fns_ok hp ho hd shp shs -> corr u su ->
  known_c07 u QHostname v = 0 ->
  exists u' su', option_map fst (q_set_hostname dbg hp ho hd u v) = Some u' /\ spec_step shp QHostname su v = Some su'
    /\ corr u' su'.
Proof.
  intros HF C Hk. pose proof (co_wf _ _ _ _ C) as W.
  pose proof (cannot_be_a_base_eval u W) as Ecb.
  change (negb (byte_eqb (ser u) (scheme_end u + 1) 47)) with (is_opaque_b u) in Ecb.
  rewrite (co_opaque _ _ _ _ C) in Ecb.
  unfold spec_step. cbn [setter_of_q].
  destruct (has_opaque_path su) eqn:Hop.
  { unfold q_set_hostname. rewrite Ecb. cbn [bindo option_map fst spec_set]. rewrite Hop.
    exists u, su. split; [reflexivity|]. split; [reflexivity | exact C]. }
  (* outside Known_C07: not a file URL, no "//" path without host, no ':' outside brackets *)
  unfold known_c07, u_cbb, u_scheme_or_empty, u_path_or_empty in Hk.
  rewrite Ecb, (co_scheme _ _ _ _ C), (co_path _ _ _ _ C), orb_false_r in Hk.
  destruct (list_eqb (su_scheme su) s_file) eqn:Ef; [discriminate Hk|].
  destruct (negb (has_host u) && starts_with s_ss (serialize_path su)) eqn:E3; [discriminate Hk|].
  destruct (host_colon (no_tnl v) (st_is_special (scheme_type_of (su_scheme su)))) eqn:E2; [discriminate Hk|]. clear Hk.
  change s_file with str_file in Ef.
  assert (has_host u = false -> starts_with s_ss (serialize_path su) = false) as Hk3.
  { intros Hh. rewrite Hh in E3. exact E3. }
  rewrite (spec_hostname_closed shp su v Ef), Hop.
  pose proof (special_schemes_are_the_standards (su_scheme su)) as Esp. fold (is_special su) in Esp.
  set (sp := is_special su) in *.
  pose proof (host_scan_fst sp v false []) as Hfst. cbn [rev] in Hfst.
  pose proof (hscan_colon sp (ntnl v) false []) as Hcol.
  unfold host_colon in E2. rewrite Esp in E2. change (no_tnl v) with (ntnl v) in E2. rewrite E2 in Hcol.
  change (notnl v) with (ntnl v).
  destruct (hscan sp false [] (ntnl v)) as [buf flag] eqn:Ehs. cbn [fst snd] in Hfst, Hcol. subst flag.
  cbn [hostname_decide]. fold sp.
  (* the model: up to the host parser *)
  assert (st_is_file (scheme_type_of (su_scheme su)) = false) as Enf by (rewrite file_test_same; exact Ef).
  assert (scheme_type_eqb (scheme_type_of (su_scheme su)) STFile = false
          /\ scheme_type_eqb (scheme_type_of (su_scheme su)) STSpecialNotFile = sp) as [Enf' Esnf].
  { rewrite <- Esp. destruct (scheme_type_of (su_scheme su)); [discriminate Enf | split; reflexivity | split; reflexivity]. }
  unfold q_set_hostname. rewrite Ecb. cbn [bindo]. rewrite (co_scheme _ _ _ _ C). cbn [bindo].
  rewrite Enf'. cbn [andb]. unfold parse_host, input_new_no_trim. rewrite Enf, Esp, Esnf.
  destruct (host_scan sp false [] v) as [h rem] eqn:Escan. cbn [fst] in Hfst. subst h.
  replace (if negb sp then host <~ of_result (ho buf);; POk (host, rem) else host <~ of_result (hp buf);; POk (host, rem))
    with (host <~ of_result (if negb sp then ho buf else hp buf);; POk (host, rem)) by (destruct sp; reflexivity).
  assert (match (if negb sp then ho buf else hp buf), host_parsing shp (negb sp) buf with
          | Ok h, Some sh => hd h = shs sh /\ host_disp_ok hd h
                             /\ (h = HDomain [] <-> sh = SEmpty) /\ (h = HDomain [] <-> buf = [])
          | Err _, None => True
          | _, _ => False
          end) as K1.
  { destruct HF as [H0 H1]. destruct sp; [apply H0 | apply H1]. }
  destruct buf as [|b0 br].
  - (* empty host text *)
    change (C01_EqAuthSpec.is_nil (@nil N)) with true. rewrite andb_true_r. cbn [andb].
    destruct sp; cbn [negb] in *.
    { cbn [pres_ok bindo option_map fst]. exists u, su. split; [reflexivity|]. split; [reflexivity | exact C]. }
    destruct (ho []) as [hh|e] eqn:Eho; destruct (host_parsing shp true []) as [sh|] eqn:Ehp; try contradiction.
    + destruct K1 as (Kt & Kd & Ke & Ks).
      assert (hh = HDomain []) as -> by (apply Ks; reflexivity).
      assert (sh = SEmpty) as -> by (apply Ke; reflexivity).
      cbn [of_result pbind pres_ok bindo].
      destruct (corr_cred_port_texts dbg shs u su C) as (po & un & pw & Epo & Eun & Epw & Erej).
      rewrite Epo, Eun, Epw. cbn [bindo orb].
      change (match po with [] => true | _ => false end) with (is_nil po).
      change (match un with [] => true | _ => false end) with (is_nil un).
      change (match pw with [] => true | _ => false end) with (is_nil pw).
      rewrite Erej.
      destruct (includes_credentials su || opt_is_some (su_port su)) eqn:Ecp.
      * cbn [option_map fst]. exists u, su. split; [reflexivity|]. split; [reflexivity | exact C].
      * destruct (corr_set_host u su (HDomain []) SEmpty C Hop Kt Kd Ke) as (u' & E & C'); [|exact Hk3|].
        { intros _. apply orb_false_iff in Ecp. destruct Ecp as [_ B]. destruct (su_port su); [discriminate B | reflexivity]. }
        rewrite E. cbn [bindo option_map fst]. exists u'. eexists. split; [reflexivity|]. split; [reflexivity | exact C'].
    + cbn [of_result pbind pres_ok bindo option_map fst]. exists u, su. split; [reflexivity|]. split; [|exact C].
      destruct (includes_credentials su || opt_is_some (su_port su)); reflexivity.
  - (* a host text *)
    change (C01_EqAuthSpec.is_nil (b0 :: br)) with false. rewrite !andb_false_r. cbn [andb].
    destruct (if negb sp then ho (b0 :: br) else hp (b0 :: br)) as [hh|e] eqn:Eho;
      destruct (host_parsing shp (negb sp) (b0 :: br)) as [sh|] eqn:Ehp; try contradiction.
    + destruct K1 as (Kt & Kd & Ke & Ks).
      assert (hh <> HDomain []) as Hne by (intros X; apply Ks in X; discriminate X).
      cbn [of_result pbind pres_ok bindo].
      assert ((match hh with
               | HDomain [] =>
                   p <- q_port dbg u;; un <- username dbg u;; pw <- q_password dbg u;;
                   Some (sp || negb match p with [] => true | _ :: _ => false end
                            || negb match un with [] => true | _ :: _ => false end
                            || negb match pw with [] => true | _ :: _ => false end)
               | _ => Some false end) = Some false) as Erej.
      { destruct hh as [[|d0 dr]| |]; [exfalso; apply Hne; reflexivity | reflexivity ..]. }
      rewrite Erej. cbn [bindo].
      destruct (corr_set_host u su hh sh C Hop Kt Kd Ke) as (u' & E & C'); [|exact Hk3|].
      { intros X. exfalso. exact (Hne X). }
      rewrite E. cbn [bindo option_map fst]. exists u'. eexists. split; [reflexivity|]. split; [reflexivity | exact C'].
    + cbn [of_result pbind pres_ok bindo option_map fst]. exists u, su. split; [reflexivity|]. split; [reflexivity | exact C].
Qed.

(* with the invariants *)
Theorem hostname_stepS u su v : host_fns_ok hp ho hd shp shs -> corr u su -> sane su ->
  known_c07 u QHostname v = 0 ->
  exists u' su', option_map fst (q_set_hostname dbg hp ho hd u v) = Some u' /\ spec_step shp QHostname su v = Some su'
    /\ corr u' su' /\ sane su'.
Proof.
  intros HF C S Hk. destruct (hostname_step u su v HF C Hk) as (u' & su' & A & B & C').
  exists u', su'. split; [exact A|]. split; [exact B|]. split; [exact C'|].
  unfold spec_step in B. cbn [setter_of_q] in B.
  destruct (spec_set shp SetHostname su v) as [x|] eqn:E; [|discriminate B]. injection B as <-.
  destruct (has_opaque_path su) eqn:Hop.
  { cbn [spec_set] in E. rewrite Hop in E. injection E as <-. exact S. }
  (* not a file URL: class 4 *)
  pose proof (co_wf _ _ _ _ C) as W. pose proof (cannot_be_a_base_eval u W) as Ecb.
  change (negb (byte_eqb (ser u) (scheme_end u + 1) 47)) with (is_opaque_b u) in Ecb.
  rewrite (co_opaque _ _ _ _ C), Hop in Ecb.
  unfold known_c07, u_cbb, u_scheme_or_empty in Hk. rewrite Ecb, (co_scheme _ _ _ _ C) in Hk.
  destruct (list_eqb (su_scheme su) s_file) eqn:Ef; [discriminate Hk|]. change s_file with str_file in Ef.
  exact (spec_hostname_sane shp su v x (host_fns_empty_only hp ho hd shp shs HF) Ef S E).
Qed.

End Hostname.
