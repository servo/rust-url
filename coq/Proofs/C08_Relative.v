(* Proofs/C08_Relative.v - make_relative: the executable tests behind the witnesses of Properties/C08.v, one per
   excluded class of MR_ok (the inverse law fails there on the model, and - confirmed by the harness - on the crate),
   the F-C08-1 witness of the containment law for file bases, non-vacuity of MR_ok.  Definitions only. *)
From Coq Require Import String.
From RU Require Import Base.Prelude Base.Utf8 Model.AsciiSet Gen.Tables Model.PercentEncoding
  Model.HostT Model.UrlRecord Model.Parser Model.Setters Model.WF Model.MakeRelative Model.KnownC08
  Proofs.C02_Reach.
Open Scope string_scope.
Open Scope N_scope.
Open Scope list_scope.

Definition toy_join (b : url) (r : list N) : pres url := parse_url true toy_hp toy_hp toy_hd None (Some b) r.

(* make_relative answers Some r, the pair is in class `cls`, both records are well-formed, and
   joining r to the base does NOT give the target back *)
Definition mr_refutes (cls : N) (b t : url) : bool :=
  wf_b b && wf_b t && (mr_class b t =? cls)
  && match make_relative true b t with
     | Some (Some r) => negb (pres_eqb (toy_join b r) t)
     | _ => false
     end.
Definition mr_witness (cls : N) (bs ts : string) : bool :=
  match toy_parse bs, toy_parse ts with
  | POk b, POk t => mr_refutes cls b t
  | _, _ => false
  end.

(* the law holds on a pair of MR_ok *)
Definition mr_holds (bs ts rs : string) : bool :=
  match toy_parse bs, toy_parse ts with
  | POk b, POk t =>
      wf_b b && wf_b t && mr_ok b t
      && match make_relative true b t with
         | Some (Some r) => list_eqb r (B rs) && pres_eqb (toy_join b r) t
         | _ => false
         end
  | _, _ => false
  end.

(* a dot segment in the target: only for hand-made records, the parser never stores one *)
Definition t_dots : url := mkUrl (B "a:/../x") 1 2 2 2 HI_None None 2 None None.
(* containment, file bases: F-C01-1 / F-C08-1 *)
Definition contain_refutes (bs : string) (r : string) : bool :=
  match toy_parse bs with
  | POk b =>
      wf_b b && contain_pre b (B r)
      && match toy_join b (B r) with
         | POk u => negb (hi_eqb (hosti u) (hosti b))
                    || negb (list_eqb (nfirstn (path_start b) (ser u)) (nfirstn (path_start b) (ser b)))
         | _ => false
         end
  | _ => false
  end.
