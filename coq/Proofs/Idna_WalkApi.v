(* Proofs/Idna_WalkApi.v - Uts46::process / to_ascii / to_user_interface described through the functional form of
   the output walks (Proofs/Idna_WalkFun.v) and the invariants of process_inner (Proofs/Idna_Mark.v,
   Proofs/Idna_WalkInv.v). *)
From RU Require Import Base.Prelude Base.Utf8 Base.U32_c13 Gen.Tables Model.Punycode Model.Uts46
  Proofs.Idna_Sim Proofs.Idna_Api Proofs.Idna_Known Proofs.Idna_Hyp Proofs.Idna_Redisc
  Proofs.Idna_C10_Deny Proofs.Idna_C10_Prefix Proofs.Idna_C10_Inner
  Proofs.Idna_Mark Proofs.Idna_SimRun Proofs.Idna_MarkWalk Proofs.Idna_WalkFun Proofs.Idna_WalkInv.

(* the last label of domain_buffer after dropping one trailing dot: the expression `process` (Model/Uts46.v) passes to
   the policy as tld, written out so that process_B closes by reflexivity *)
Definition tld_of (db : list N) : list N :=
  last (split_on DOT (match last_opt db with
                      | Some l => if l =? DOT then removelast db else db
                      | None => db end)) [].

Lemma run_sink_none ws : run_sink None ws = (concat ws, true).
Proof. reflexivity. Qed.
Lemma split_on_ne l : split_on DOT l <> [].
Proof. unfold split_on. destruct (split1 DOT l). discriminate. Qed.

Section Api.
Variable A : adapter.
Variable cfg : bool.

(* InnerB: what process_inner has returned when `process` goes on to the output walks (the branch named B in
   process_B, to_ascii_B), i.e. FInv of Idna_Mark.v in its second case plus the ASCII facts of Idna_WalkInv.v.
   It is destructed by position; the conjuncts are, in order:
     1. ptu < len d                                    passthrough_up_to is not the whole input
     2. length (split_on DOT db) = length ap           one already_punycode entry per label of domain_buffer
     3. he = efffd (split_on DOT db)                   had_errors = some label contains U+FFFD
     4. he = fffd db                                   the same, on domain_buffer itself
     5. bd = false -> pre_ok (split_on DOT db) ap      pre_ok when the flag is_bidi returned is false
     6. exists P rl, then 6a d = P ++ join_dots rl, 6b len P = ptu, 6c cover ap rl, 6d ascii P,
        6e Forall mixed_ascii ap                       the positional invariant; the prefix and the carried labels are ASCII *)
Definition InnerB (d : list N) (ptu : N) (bd he : bool) (db : list N) (ap : list aal) : Prop :=
  ptu < len d /\ length (split_on DOT db) = length ap /\ he = efffd (split_on DOT db) /\ he = fffd db /\
  (bd = false -> pre_ok (split_on DOT db) ap) /\
  exists P rl, d = P ++ join_dots rl /\ len P = ptu /\ cover ap rl /\ ascii P /\ Forall mixed_ascii ap.

Lemma inner_mark_facts hy deny d ptu bd he db ap : bytes d ->
  process_inner A cfg false hy deny d = IRes ptu bd he db ap ->
  (ptu = len d /\ he = false /\ ascii d) \/ InnerB d ptu bd he db ap.
Proof.
  intros Hb H. pose proof (process_inner_FInv A cfg hy deny d) as HF. rewrite H in HF. cbn [FInv] in HF.
  destruct (process_inner_ascii A cfg d Hb hy deny _ _ _ _ _ H) as [HA1 HA2].
  destruct HF as [[E1 E2]|(Hlt & dbl & Hne & Hsp & Hnd & He1 & He2 & Hlen & Hpo & P & rl & Hd & HP & Hcv)].
  - left. split; [exact E1|]. split; [exact E2|]. subst ptu. unfold len in HA1. rewrite Nat2N.id, firstn_all in HA1. exact HA1.
  - right. subst dbl. unfold InnerB. repeat split; try assumption. exists P, rl. repeat split; try assumption.
    rewrite <- HP in HA1. rewrite Hd in HA1. rewrite firstn_len_app in HA1. exact HA1.
Qed.

Lemma inner_ff_facts hy deny d ptu bd he db ap :
  process_inner A cfg true hy deny d = IRes ptu bd he db ap ->
  IRes ptu bd he db ap = I_EXIT \/ (he = false /\ process_inner A cfg false hy deny d = IRes ptu bd he db ap).
Proof.
  intros H. pose proof (process_inner_wsim A cfg hy deny d) as HW. rewrite H in HW.
  destruct HW as [HW|HW]; [left; exact HW|]. right.
  destruct (process_inner A cfg false hy deny d) as [ptu' bd' he' db' ap'|s]; [|discriminate].
  destruct HW as [E HW]. inversion HW. subst. split; reflexivity.
Qed.

(* both modes: the early return, the immediate Passthrough, or the walks *)
Lemma inner_facts ff hy deny d ptu bd he db ap : bytes d ->
  process_inner A cfg ff hy deny d = IRes ptu bd he db ap ->
  (ff = true /\ he = true /\ ptu = 0 /\ d <> []) \/ (ptu = len d /\ he = false /\ ascii d) \/
  (InnerB d ptu bd he db ap /\ process_inner A cfg false hy deny d = IRes ptu bd he db ap).
Proof.
  intros Hb H. destruct ff.
  - destruct (inner_ff_facts _ _ _ _ _ _ _ _ H) as [HX|[E H']].
    + inversion HX. subst. left. repeat split. intros ->. rewrite process_inner_nil in H. discriminate.
    + right. destruct (inner_mark_facts _ _ _ _ _ _ _ _ Hb H') as [HA|HB]; [left; exact HA|right; split; assumption].
  - right. destruct (inner_mark_facts _ _ _ _ _ _ _ _ Hb H) as [HA|HB]; [left; exact HA|right; split; assumption].
Qed.

(* process, unfolded on the branch that runs the output walks *)
Lemma process_B ff p d deny hy k1 k2 w ptu bd he db ap :
  process_inner A cfg ff hy deny d = IRes ptu bd he db ap -> ptu <> len d -> ff && he = false -> he = fffd db ->
  process A cfg ff p d deny hy k1 k2 w =
    let labels := split_on DOT db in
    let w1 := walk1 cfg ff p d (tld_of db) bd he labels ap false ptu false false in
    let (s1, through1) := run_sink k1 (fst w1) in
    if negb through1 then (PSinkError, s1, [])
    else match snd w1 with
         | WPanic s => (PPanic s, s1, [])
         | WPass => (PPassthrough, s1, [])
         | WEnd huo =>
             if he then (PValidityError, s1, [])
             else if huo && w then
               let w2 := walk2 cfg d he labels ap false ptu false in
               let (s2, through2) := run_sink k2 (fst w2) in
               if negb through2 then (PSinkError, s1, s2)
               else match snd w2 with WPanic s => (PPanic s, s1, s2) | _ => (PWroteToSink, s1, s2) end
             else (PWroteToSink, s1, [])
         end.
Proof.
  intros H Hne Hfh Hhe. unfold process. rewrite H.
  replace (ptu =? len d) with false by (symmetry; apply N.eqb_neq; exact Hne).
  rewrite Hfh. unfold fffd in Hhe. rewrite <- Hhe. rewrite Bool.eqb_reflx. cbn [negb]. rewrite andb_false_r. reflexivity.
Qed.

(* the first walk at the top level *)
Lemma walk1_top ff p d ptu bd he db ap : InnerB d ptu bd he db ap -> (ff = true -> he = false) ->
  exists P rl, d = P ++ join_dots rl /\ len P = ptu /\ cover ap rl /\ ascii P /\
    Post1 cfg d he false P (stays (uni1 ff p (tld_of db) bd) (split_on DOT db) ap)
      (outs cfg (uni1 ff p (tld_of db) bd) (split_on DOT db) ap) false
      (huo_fin ff p (tld_of db) bd false (split_on DOT db) ap)
      (walk1 cfg ff p d (tld_of db) bd he (split_on DOT db) ap false ptu false false).
Proof.
  intros (Hlt & Hlen & He1 & He2 & Hpo & P & rl & Hd & HP & Hcv & HaP & Hma) Hff.
  exists P, rl. repeat split; try assumption.
  apply (walk1_spec cfg d he ff p (tld_of db) bd (split_on DOT db) ap false ptu false false P rl Hlen).
  - intros Hf. rewrite <- He1. exact (Hff Hf).
  - intros _. split; [apply split_on_ne|]. cbn [tailtext]. repeat split; assumption.
Qed.

Lemma walk2_top d ptu bd he db ap : InnerB d ptu bd he db ap ->
  exists P rl, d = P ++ join_dots rl /\ len P = ptu /\ cover ap rl /\ ascii P /\
    Post2 false P (outs cfg is_ascii_l (split_on DOT db) ap) false (walk2 cfg d he (split_on DOT db) ap false ptu false).
Proof.
  intros (Hlt & Hlen & He1 & He2 & Hpo & P & rl & Hd & HP & Hcv & HaP & Hma).
  exists P, rl. repeat split; try assumption.
  apply (walk2_spec cfg d he (split_on DOT db) ap false ptu false P rl Hlen).
  intros _. cbn [tailtext]. repeat split; assumption.
Qed.

Lemma stays_cover_ascii uni : forall ap rl, cover ap rl -> forall labels, length labels = length ap ->
  stays uni labels ap = true -> Forall mixed_ascii ap -> Forall ascii rl.
Proof.
  induction 1 as [|l ap ls _ IH|l ap ls Hl _ IH|k l ap ls Hl _ IH]; intros labels Hlen Hst Hma.
  - constructor.
  - destruct labels as [|lab labels]; [discriminate|]. cbn [stays length] in *. apply andb_true_iff in Hst.
    inversion Hma; subst. constructor; [assumption|]. apply (IH labels); [lia|exact (proj2 Hst)|assumption].
  - destruct labels as [|lab labels]; [discriminate|]. cbn [stays length] in *. apply andb_true_iff in Hst.
    inversion Hma; subst. constructor; [assumption|]. apply (IH labels); [lia|exact (proj2 Hst)|assumption].
  - destruct labels as [|lab labels]; [discriminate|]. cbn [stays stay_label andb] in Hst. discriminate.
Qed.

(* process returns Passthrough on the walking branch only when no label forces a write *)
Lemma passthrough_stays ff p d deny hy k1 k2 w o1 o2 ptu bd he db ap :
  process_inner A cfg ff hy deny d = IRes ptu bd he db ap -> InnerB d ptu bd he db ap -> ff && he = false ->
  process A cfg ff p d deny hy k1 k2 w = (PPassthrough, o1, o2) ->
  stays (uni1 ff p (tld_of db) bd) (split_on DOT db) ap = true.
Proof.
  intros Ei HB Efh H.
  assert (Hne : ptu <> len d) by (destruct HB as [Hlt _]; lia).
  assert (Hhe : he = fffd db) by (destruct HB as (_ & _ & _ & Hx & _); exact Hx).
  rewrite (process_B ff p d deny hy k1 k2 w _ _ _ _ _ Ei Hne Efh Hhe) in H. cbv zeta in H.
  assert (Hffhe : ff = true -> he = false) by (intros ->; exact Efh).
  destruct (walk1_top ff p d _ _ _ _ _ HB Hffhe) as (P & rl & Hd & HP & Hcv & HaP & HW).
  destruct (walk1 cfg ff p d (tld_of db) bd he (split_on DOT db) ap false ptu false false) as [ws we].
  cbn [fst snd] in *. destruct (run_sink k1 ws) as [s1 th]. destruct th; cbn [negb] in H; [|discriminate].
  destruct we as [|huo|s]; [| |discriminate].
  2:{ destruct he; [discriminate|]. destruct (huo && w); [|discriminate].
      destruct (run_sink k2 (fst (walk2 cfg d false (split_on DOT db) ap false ptu false))) as [s2 th2].
      destruct th2; cbn [negb] in H; [|discriminate].
      destruct (snd (walk2 cfg d false (split_on DOT db) ap false ptu false)); discriminate. }
  unfold Post1 in HW. destruct (outs cfg (uni1 ff p (tld_of db) bd) (split_on DOT db) ap) as [os|s]; [|discriminate].
  unfold Res1 in HW. cbn [negb andb snd] in HW.
  destruct (stays (uni1 ff p (tld_of db) bd) (split_on DOT db) ap); [reflexivity|destruct HW; discriminate].
Qed.

Theorem passthrough_ascii_input ff p d deny hy k1 k2 w o1 o2 : bytes d ->
  process A cfg ff p d deny hy k1 k2 w = (PPassthrough, o1, o2) -> ascii d.
Proof.
  intros Hb H.
  destruct (process_inner A cfg ff hy deny d) as [ptu bd he db ap|s] eqn:Ei.
  2:{ unfold process in H. rewrite Ei in H. discriminate. }
  destruct (inner_facts ff hy deny d _ _ _ _ _ Hb Ei) as [(-> & -> & -> & Hne)|[(_ & _ & Ha)|[HB _]]]; [|exact Ha|].
  - exfalso. unfold process in H. rewrite Ei in H.
    destruct (0 =? len d) eqn:E; [apply len_nil_iff in E; contradiction|]. cbn [andb] in H. discriminate.
  - assert (Hne : ptu <> len d) by (destruct HB as [Hlt _]; lia).
    destruct (ff && he) eqn:Efh.
    { unfold process in H. rewrite Ei in H. replace (ptu =? len d) with false in H by (symmetry; apply N.eqb_neq; exact Hne).
      rewrite Efh in H. discriminate. }
    pose proof (passthrough_stays ff p d deny hy k1 k2 w o1 o2 _ _ _ _ _ Ei HB Efh H) as Es.
    destruct HB as (_ & Hlen & _ & _ & _ & P & rl & Hd & HP & Hcv & HaP & Hma).
    rewrite Hd. apply ascii_app. split; [exact HaP|].
    apply join_dots_Forall; [unfold is_ascii, DOT; lia|]. exact (stays_cover_ascii _ _ _ Hcv _ Hlen Es Hma).
Qed.

(* two label-display decisions u, u' agree on every label whose entry is not MixedCaseAscii (for a MixedCaseAscii
   entry out_label and stay_label do not consult the decision) *)
Fixpoint agree (u u' : list N -> bool) (labels : list (list N)) (aps : list aal) : Prop :=
  match labels, aps with
  | l :: ls, ip :: ips => (match ip with MixedCaseAscii _ => True | _ => u l = u' l end) /\ agree u u' ls ips
  | _, _ => True
  end.
Lemma agree_all u u' : (forall l, u l = u' l) -> forall labels aps, agree u u' labels aps.
Proof.
  intros H. induction labels as [|l ls IH]; intros aps; [exact I|]. destruct aps as [|ip ips]; [exact I|].
  split; [destruct ip; auto|apply IH].
Qed.
Lemma outs_agree u u' labels : forall aps, agree u u' labels aps -> outs cfg u labels aps = outs cfg u' labels aps.
Proof.
  induction labels as [|l ls IH]; intros aps H; [reflexivity|]. destruct aps as [|ip ips]; [reflexivity|].
  destruct H as [H1 H2]. cbn [outs]. rewrite (IH ips H2). destruct ip as [m|m|]; cbn [out_label]; [reflexivity| |]; rewrite H1; reflexivity.
Qed.
Lemma stays_agree u u' labels : forall aps, agree u u' labels aps -> stays u labels aps = stays u' labels aps.
Proof.
  induction labels as [|l ls IH]; intros aps H; [reflexivity|]. destruct aps as [|ip ips]; [reflexivity|].
  destruct H as [H1 H2]. cbn [stays]. rewrite (IH ips H2). destruct ip as [m|m|]; cbn [stay_label]; [reflexivity| |reflexivity]; rewrite H1; reflexivity.
Qed.
Lemma stays_below u u' : (forall l, u l = false -> u' l = false) -> forall labels aps,
  stays u labels aps = true -> stays u' labels aps = true.
Proof.
  intros H. induction labels as [|l ls IH]; intros aps Hs; [reflexivity|]. destruct aps as [|ip ips]; [reflexivity|].
  cbn [stays] in *. apply andb_true_iff in Hs. destruct Hs as [H1 H2]. rewrite (IH ips H2), andb_true_r.
  destruct ip as [m|m|]; cbn [stay_label] in *; [exact H1| |exact H1].
  apply andb_true_iff in H1. destruct H1 as [H1 H3]. apply negb_true_iff in H1. rewrite (H l H1), H3. reflexivity.
Qed.

Lemma classify_unicode_nonascii l : classify_for_punycode l = PcUnicode -> is_ascii_l l = false.
Proof. rewrite classify_spec. destruct (is_ascii_l l); [discriminate|reflexivity]. Qed.
Lemma uni1_false_nonascii ff p tld bd l : uni1 ff p tld bd l = false -> is_ascii_l l = false.
Proof.
  unfold uni1, pp1. destruct ff.
  - destruct (is_ascii_l l); [cbn [negb]; discriminate|reflexivity].
  - destruct (classify_for_punycode l) eqn:E; try discriminate. intros _. exact (classify_unicode_nonascii l E).
Qed.
Lemma uni1_never tld bd l : uni1 true never_unicode tld bd l = is_ascii_l l.
Proof. unfold uni1, pp1, never_unicode. destruct (is_ascii_l l); reflexivity. Qed.

(* no Unicode output so far: the policy was never-Unicode on the labels it was asked about *)
Lemma huo_false_agree p tld bd labels : forall aps h, efffd labels = false ->
  huo_fin false p tld bd h labels aps = false ->
  h = false /\ agree (uni1 false p tld bd) is_ascii_l labels aps.
Proof.
  induction labels as [|l ls IH]; intros aps h Hf H; [split; [exact H|exact I]|].
  destruct aps as [|ip ips]; [split; [exact H|exact I]|]. cbn [huo_fin] in H. cbn [efffd existsb] in Hf.
  apply orb_false_iff in Hf. destruct Hf as [Hfl Hfs]. destruct (IH ips _ Hfs H) as [H1 H2]. clear IH.
  assert (Hpp : pp1 false l = negb (is_ascii_l l)) by (unfold pp1; exact (classify_unicode_iff l Hfl)).
  destruct ip as [m|m|]; cbn [huo1] in H1; cbn [agree].
  - split; [exact H1|split; [exact I|exact H2]].
  - unfold uni1. rewrite Hpp in *. destruct (is_ascii_l l); cbn [negb] in *; [split; [exact H1|split; [reflexivity|exact H2]]|].
    apply orb_false_iff in H1. destruct H1 as [-> ->]. split; [reflexivity|split; [reflexivity|exact H2]].
  - unfold uni1. rewrite Hpp in *. destruct (is_ascii_l l); cbn [negb] in *; [split; [exact H1|split; [reflexivity|exact H2]]|].
    apply orb_false_iff in H1. destruct H1 as [-> ->]. split; [reflexivity|split; [reflexivity|exact H2]].
Qed.

Lemma cover_puny_ne ap rl : cover ap rl -> forall m, In (MixedCasePunycode m) ap -> m <> [].
Proof.
  induction 1 as [|l ap ls _ IH|l ap ls Hl _ IH|k l ap ls Hl _ IH]; intros m Hin.
  - destruct Hin.
  - destruct Hin as [Hx|Hin]; [discriminate|exact (IH m Hin)].
  - destruct Hin as [Hx|Hin]; [inversion Hx; subst; exact Hl|exact (IH m Hin)].
  - destruct Hin as [Hx|Hin]; [discriminate|]. apply in_app_or in Hin. destruct Hin as [Hin|Hin]; [|exact (IH m Hin)].
    apply repeat_spec in Hin. discriminate.
Qed.

Lemma huo_true_nonempty p tld bd labels : forall aps h os,
  huo_fin false p tld bd h labels aps = true -> outs cfg is_ascii_l labels aps = inl os ->
  (forall m, In (MixedCasePunycode m) aps -> m <> []) -> h = true \/ join_dots os <> [].
Proof.
  induction labels as [|l ls IH]; intros aps h os H Ho Hne; [left; exact H|].
  destruct aps as [|ip ips]; [left; exact H|]. cbn [huo_fin] in H. cbn [outs] in Ho.
  destruct (out_label cfg is_ascii_l l ip) as [o|s] eqn:Eo; [|discriminate].
  destruct (outs cfg is_ascii_l ls ips) as [os'|s] eqn:Eos; [|discriminate]. inversion Ho. subst os. clear Ho.
  assert (Htail : join_dots os' <> [] -> join_dots (o :: os') <> []).
  { intros Hx Hj. apply join_dots_nil in Hj. destruct Hj as [_ ->]. apply Hx. reflexivity. }
  assert (Hhead : o <> [] -> join_dots (o :: os') <> []).
  { intros Hx Hj. apply join_dots_nil in Hj. destruct Hj as [-> _]. apply Hx. reflexivity. }
  destruct (IH ips _ os' H Eos (fun m Hm => Hne m (or_intror Hm))) as [H1|H1]; [|right; exact (Htail H1)].
  destruct ip as [m|m|]; cbn [huo1] in H1; [left; exact H1| |].
  - destruct (pp1 false l) eqn:Epp; [|left; exact H1]. apply orb_true_iff in H1. destruct H1 as [H1|H1]; [left; exact H1|].
    right. apply Hhead. cbn [out_label] in Eo.
    assert (Hna : is_ascii_l l = false).
    { unfold pp1 in Epp. destruct (classify_for_punycode l) eqn:E; try discriminate. exact (classify_unicode_nonascii l E). }
    rewrite Hna in Eo. inversion Eo. pose proof (Hne m (or_introl eq_refl)) as Hm. destruct m; [congruence|discriminate].
  - destruct (pp1 false l) eqn:Epp; [|left; exact H1]. apply orb_true_iff in H1. destruct H1 as [H1|H1]; [left; exact H1|].
    right. apply Hhead. cbn [out_label] in Eo.
    assert (Hna : is_ascii_l l = false).
    { unfold pp1 in Epp. destruct (classify_for_punycode l) eqn:E; try discriminate. exact (classify_unicode_nonascii l E). }
    rewrite Hna in Eo. unfold enc_label in Eo. destruct (encode_internal cfg l); inversion Eo. discriminate.
Qed.

(* to_ascii through the first walk *)
Lemma to_ascii_B d deny hy ptu bd db ap :
  process_inner A cfg true hy deny d = IRes ptu bd false db ap -> ptu <> len d -> false = fffd db ->
  to_ascii A cfg d deny hy DIgnore =
    let w1 := walk1 cfg true never_unicode d (tld_of db) bd false (split_on DOT db) ap false ptu false false in
    match snd w1 with
    | WPanic s => Panic s
    | WPass => Ok (true, d)
    | WEnd _ => Ok (false, concat (fst w1))
    end.
Proof.
  intros H Hne Hhe. unfold to_ascii. rewrite (process_B true never_unicode d deny hy None None false _ _ _ _ _ H Hne eq_refl Hhe).
  cbv zeta. rewrite run_sink_none. cbn [negb].
  destruct (snd (walk1 cfg true never_unicode d (tld_of db) bd false (split_on DOT db) ap false ptu false false)); try reflexivity.
  rewrite andb_false_r. reflexivity.
Qed.

Lemma ff_of_mark hy deny d ptu bd db ap : Redisc A cfg deny ->
  process_inner A cfg false hy deny d = IRes ptu bd false db ap ->
  process_inner A cfg true hy deny d = IRes ptu bd false db ap.
Proof. intros HR H. pose proof (process_inner_sim A cfg hy deny d HR) as HS. rewrite H in HS. exact HS. Qed.

(* to_ascii of a name for which the fail-fast run of process_inner goes on to the walks without error: the per-label
   outputs after the unflushed prefix, or the input itself when no label forces a write.  P, rl are the caller's
   own witnesses of the positional invariant (InnerB only has them under `exists`), so that they appear in the result.
   to_ascii_walk_t: the case stays = true.  to_ascii_walk: the same from the marking run, under Redisc. *)
Lemma to_ascii_walk_ff d deny hy ptu bd db ap :
  process_inner A cfg true hy deny d = IRes ptu bd false db ap -> InnerB d ptu bd false db ap ->
  forall P rl, d = P ++ join_dots rl -> len P = ptu -> cover ap rl ->
  match outs cfg is_ascii_l (split_on DOT db) ap with
  | inl os => if stays is_ascii_l (split_on DOT db) ap
              then P ++ join_dots os = d /\ to_ascii A cfg d deny hy DIgnore = Ok (true, d)
              else to_ascii A cfg d deny hy DIgnore = Ok (false, P ++ join_dots os)
  | inr s => to_ascii A cfg d deny hy DIgnore = Panic s
  end.
Proof.
  intros Ht HB P rl Hd HP Hcv.
  destruct HB as (Hlt & Hlen & He1 & He2 & _).
  rewrite (to_ascii_B d deny hy _ _ _ _ Ht ltac:(lia) He2). cbv zeta.
  pose proof (walk1_spec cfg d false true never_unicode (tld_of db) bd (split_on DOT db) ap false ptu false false P rl Hlen
                ltac:(intros _; symmetry; exact He1)
                ltac:(intros _; split; [apply split_on_ne|cbn [tailtext]; repeat split; assumption])) as HW.
  rewrite (outs_agree _ _ _ _ (agree_all _ _ (uni1_never (tld_of db) bd) _ _)) in HW.
  rewrite (stays_agree _ _ _ _ (agree_all _ _ (uni1_never (tld_of db) bd) _ _)) in HW.
  unfold Post1 in HW. destruct (outs cfg is_ascii_l (split_on DOT db) ap) as [os|s]; [|rewrite HW; reflexivity].
  unfold Res1 in HW. cbn [negb andb tailtext] in HW. rewrite andb_false_r in HW.
  destruct (stays is_ascii_l (split_on DOT db) ap).
  - destruct HW as [HW1 HW2]. rewrite HW2. split; [exact HW1|reflexivity].
  - destruct HW as [HW1 HW2]. rewrite HW1. unfold wcat in HW2. rewrite HW2. reflexivity.
Qed.
Lemma to_ascii_walk_t d deny hy ptu bd db ap :
  process_inner A cfg true hy deny d = IRes ptu bd false db ap -> InnerB d ptu bd false db ap ->
  forall P rl, d = P ++ join_dots rl -> len P = ptu -> cover ap rl ->
  stays is_ascii_l (split_on DOT db) ap = true -> to_ascii A cfg d deny hy DIgnore = Ok (true, d).
Proof.
  intros Ht HB P rl Hd HP Hcv Es. pose proof (to_ascii_walk_ff d deny hy _ _ _ _ Ht HB P rl Hd HP Hcv) as HT.
  destruct (stays_outs cfg is_ascii_l _ _ Es) as (os & Eo). rewrite Eo, Es in HT. exact (proj2 HT).
Qed.

Lemma to_ascii_walk d deny hy ptu bd db ap : Redisc A cfg deny ->
  process_inner A cfg false hy deny d = IRes ptu bd false db ap -> InnerB d ptu bd false db ap ->
  forall P rl, d = P ++ join_dots rl -> len P = ptu -> cover ap rl ->
  match outs cfg is_ascii_l (split_on DOT db) ap with
  | inl os => if stays is_ascii_l (split_on DOT db) ap
              then P ++ join_dots os = d /\ to_ascii A cfg d deny hy DIgnore = Ok (true, d)
              else to_ascii A cfg d deny hy DIgnore = Ok (false, P ++ join_dots os)
  | inr s => to_ascii A cfg d deny hy DIgnore = Panic s
  end.
Proof. intros HR Hm. exact (to_ascii_walk_ff d deny hy ptu bd db ap (ff_of_mark hy deny d _ _ _ _ HR Hm)). Qed.

(* the Passthrough outcome: the input is its own ToASCII result (under Redisc; Idna_WalkPass.v has it for every adapter) *)
Theorem passthrough_own_result ff p d deny hy k1 k2 w s a : bytes d -> Redisc A cfg deny ->
  process A cfg ff p d deny hy k1 k2 w = (PPassthrough, s, a) -> Known_C11 A cfg d deny hy = false ->
  to_ascii A cfg d deny hy DIgnore = Ok (true, d).
Proof.
  intros Hb HR H HK.
  destruct (process_inner A cfg ff hy deny d) as [ptu bd he db ap|site] eqn:Ei.
  2:{ unfold process in H. rewrite Ei in H. discriminate. }
  destruct (inner_facts ff hy deny d _ _ _ _ _ Hb Ei) as [(-> & -> & -> & Hne)|[(-> & -> & Ha)|[HB Hm]]].
  - exfalso. unfold process in H. rewrite Ei in H.
    destruct (0 =? len d) eqn:E; [apply len_nil_iff in E; contradiction|]. cbn [andb] in H. discriminate.
  - assert (Ht : process_inner A cfg true hy deny d = IRes (len d) bd false db ap).
    { destruct ff; [exact Ei|exact (ff_of_mark hy deny d _ _ _ _ HR Ei)]. }
    unfold to_ascii, process. rewrite Ht, N.eqb_refl, andb_false_r. reflexivity.
  - assert (Hne : ptu <> len d) by (destruct HB as [Hlt _]; lia).
    assert (Hhe : he = false).
    { destruct he; [|reflexivity]. destruct ff.
      - exfalso. unfold process in H. rewrite Ei in H.
        replace (ptu =? len d) with false in H by (symmetry; apply N.eqb_neq; exact Hne). cbn [andb] in H. discriminate.
      - exfalso. pose proof (mark_err_status A cfg d deny hy p k1 k2 w _ _ _ _ Ei HK) as HX. rewrite H in HX. exact HX. }
    subst he.
    pose proof (passthrough_stays ff p d deny hy k1 k2 w s a _ _ _ _ _ Ei HB (andb_false_r ff) H) as Es.
    pose proof HB as (_ & _ & _ & _ & _ & P & rl & Hd & HP & Hcv & _).
    pose proof (stays_below _ is_ascii_l (uni1_false_nonascii ff p (tld_of db) bd) _ _ Es) as Es2.
    pose proof (to_ascii_walk d deny hy _ _ _ _ HR Hm HB P rl Hd HP Hcv) as HT.
    destruct (stays_outs cfg is_ascii_l _ _ Es2) as (os2 & Eo2). rewrite Eo2, Es2 in HT. exact (proj2 HT).
Qed.

(* the dual-output mode = two separate calls *)
Theorem dual_two_calls p d deny hy s a : bytes d -> Redisc A cfg deny ->
  process A cfg false p d deny hy None None true = (PWroteToSink, s, a) ->
  to_user_interface A cfg d deny hy p = UI false s false /\
  exists b, to_ascii A cfg d deny hy DIgnore = Ok (b, match a with [] => s | _ => a end).
Proof.
  intros Hb HR H.
  destruct (process_inner A cfg false hy deny d) as [ptu bd he db ap|site] eqn:Ei.
  2:{ unfold process in H. rewrite Ei in H. discriminate. }
  destruct (inner_mark_facts hy deny d _ _ _ _ _ Hb Ei) as [(-> & -> & Ha)|HB].
  { exfalso. unfold process in H. rewrite Ei, N.eqb_refl, andb_false_r in H. discriminate. }
  assert (Hne : ptu <> len d) by (destruct HB as [Hlt _]; lia).
  pose proof HB as (_ & Hlen & He1 & Hfd & _ & P & rl & Hd & HP & Hcv & HaP & Hma).
  unfold to_user_interface.
  rewrite (process_B false p d deny hy None None true _ _ _ _ _ Ei Hne eq_refl Hfd) in H.
  rewrite (process_B false p d deny hy None None false _ _ _ _ _ Ei Hne eq_refl Hfd). cbv zeta in *.
  pose proof (walk1_spec cfg d he false p (tld_of db) bd (split_on DOT db) ap false ptu false false P rl Hlen
                ltac:(discriminate)
                ltac:(intros _; split; [apply split_on_ne|cbn [tailtext]; repeat split; assumption])) as HW.
  pose proof (walk2_spec cfg d he (split_on DOT db) ap false ptu false P rl Hlen
                ltac:(intros _; cbn [tailtext]; repeat split; assumption)) as HW2.
  destruct (walk1 cfg false p d (tld_of db) bd he (split_on DOT db) ap false ptu false false) as [ws we].
  rewrite run_sink_none in *. cbn [fst snd negb] in *.
  destruct we as [|huo|site]; [discriminate| |discriminate].
  destruct he; [discriminate|]. rewrite andb_false_r.
  assert (Hs : s = concat ws).
  { destruct (huo && true); [|inversion H; reflexivity].
    rewrite run_sink_none in H. cbn [negb] in H.
    destruct (snd (walk2 cfg d false (split_on DOT db) ap false ptu false)); inversion H; reflexivity. }
  split; [rewrite Hs; reflexivity|].
  unfold Post1 in HW. destruct (outs cfg (uni1 false p (tld_of db) bd) (split_on DOT db) ap) as [os|site] eqn:Eo; [|discriminate].
  unfold Res1 in HW. cbn [negb andb snd tailtext] in HW.
  destruct (stays (uni1 false p (tld_of db) bd) (split_on DOT db) ap) eqn:Es; [destruct HW as [_ HW]; rewrite andb_false_r in HW; discriminate|].
  destruct HW as [HW1 HW3]. unfold wcat in HW3. cbn [fst] in HW3. inversion HW1 as [Hhuo]. clear HW1.
  pose proof (to_ascii_walk d deny hy _ _ _ _ HR Ei HB P rl Hd HP Hcv) as HT.
  destruct huo; cbn [andb] in H.
  - (* the second walk ran *)
    rewrite run_sink_none in H. cbn [negb] in H. unfold Post2 in HW2.
    destruct (outs cfg is_ascii_l (split_on DOT db) ap) as [os2|site] eqn:Eo2.
    2:{ rewrite HW2 in H. discriminate. }
    unfold Res2 in HW2. cbn [tailtext] in HW2. destruct HW2 as [HW2a HW2b]. rewrite HW2a in H. inversion H as [[Hs' Ha]]. subst a.
    unfold wcat in HW2b. rewrite HW2b.
    assert (Hne2 : join_dots os2 <> []).
    { destruct (huo_true_nonempty p (tld_of db) bd _ _ _ _ (eq_sym Hhuo) Eo2 (cover_puny_ne _ _ Hcv)) as [Hx|Hx]; [discriminate|exact Hx]. }
    assert (Hm : forall x : list N, match P ++ join_dots os2 with [] => x | _ => P ++ join_dots os2 end = P ++ join_dots os2).
    { intros x. destruct (P ++ join_dots os2) eqn:E; [|reflexivity]. apply app_eq_nil in E. destruct E as [_ E]. contradiction. }
    rewrite Hm. destruct (stays is_ascii_l (split_on DOT db) ap).
    + destruct HT as [HT1 HT2]. exists true. rewrite HT1. exact HT2.
    + exists false. exact HT.
  - (* no label was written as Unicode: the text of the first walk is the ToASCII result *)
    inversion H as [[Hs' Ha]]. subst a.
    destruct (huo_false_agree p (tld_of db) bd _ _ _ (eq_sym He1) (eq_sym Hhuo)) as [_ Hag].
    rewrite <- (outs_agree _ _ _ _ Hag), Eo in HT. rewrite <- (stays_agree _ _ _ _ Hag), Es in HT.
    exists false. rewrite HW3. exact HT.
Qed.
End Api.

(* C11_dual_statement and C11_passthrough_statement for the adapters with map_normalize A [] = [] *)
Lemma c11_dual_full : forall A cfg, map_normalize A [] = [] -> C11_dual_statement A cfg.
Proof.
  intros A cfg H0 d deny hy p s a Hb Hv H.
  exact (dual_two_calls A cfg p d deny hy s a Hb (redisc_of_adapter A cfg deny H0 (proj1 (valid_deny_facts deny Hv))) H).
Qed.
Lemma c11_passthrough_full : forall A cfg, map_normalize A [] = [] -> C11_passthrough_statement A cfg.
Proof.
  intros A cfg H0 ff p d deny hy k1 k2 w s a Hb Hv H Hk. split.
  - exact (passthrough_ascii_input A cfg ff p d deny hy k1 k2 w s a Hb H).
  - exact (passthrough_own_result A cfg ff p d deny hy k1 k2 w s a Hb
             (redisc_of_adapter A cfg deny H0 (proj1 (valid_deny_facts deny Hv))) H Hk).
Qed.

(* the adapter premise of c11_dual_full cannot be dropped: with the adapter of Proofs/Idna_MarkWalk.v that maps the
   empty text to "a", the dual-output call on "xn--a-" writes both texts although to_ascii of the same name is an error *)
Lemma w_c11_dual_h0 cfg :
  process nonempty_map cfg false always_unicode W_C11_h0 DENY_EMPTY HAllow None None true
    = (PWroteToSink, [128; 97], [120; 110; 45; 45; 97; 45; 97]).
Proof. destruct cfg; vm_compute; reflexivity. Qed.
Lemma c11_dual_unconditional_refuted : exists A, forall cfg, ~ C11_dual_statement A cfg.
Proof.
  exists nonempty_map. intros cfg H. destruct (w_c11_h0 cfg) as (_ & Ha & _).
  assert (Hb : bytes W_C11_h0) by (unfold W_C11_h0; repeat constructor; unfold is_byte; lia).
  assert (Hv : valid_deny DENY_EMPTY) by (right; exists T_IDNA_EMPTY_GLYPHLESS, T_IDNA_EMPTY_LIST; reflexivity).
  destruct (H W_C11_h0 DENY_EMPTY HAllow always_unicode _ _ Hb Hv (w_c11_dual_h0 cfg)) as [_ (b & Hx)].
  rewrite Ha in Hx. discriminate.
Qed.
