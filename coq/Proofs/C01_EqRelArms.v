(* Proofs/C01_EqRelArms.v - C01 equivalence for the two path arms of a scheme-less reference against a
   related base that is neither special nor opaque:
     class "path-absolute"  "/x/y?q#f"   and   class "path-relative"  "x/../y?q#f".
   The common end of both arms (parse_path on the segments kept of the base, then
   with_query_and_fragment) against the Standard's path state started on the same segments; pop_path
   against "shorten"; the class theorems with recognisers on the Standard's side. *)
From RU Require Import Base.Prelude Gen.Tables Model.HostT Model.UrlRecord Model.Parser Model.WF Spec.Whatwg
  Proofs.ListN Proofs.C02_Parts Proofs.C02_Opaque Proofs.C02_Path Proofs.C02_PathL1 Proofs.C03_WF
  Proofs.C08_Input Proofs.C01_EqRun Proofs.C01_EqEnc Proofs.C01_EqApi Proofs.C01_EqOpaque Proofs.C01_EqPathSpec
  Proofs.C06_List Proofs.C06_WFI Proofs.C06_Tail Proofs.C08_Simple Proofs.C08_Contain Proofs.C08_NoAuth
  Proofs.C01_EqRef Proofs.C01_EqPath Proofs.C01_EqClasses Proofs.C01_EqAuthModel Proofs.C01_EqAuth
  Proofs.C01_EqClasses2 Proofs.C01_EqRel Proofs.C01_EqRelPath.

(* what the theorems need of the Standard's base record beyond `related`: the scheme is lower-case and
   no path segment contains '/' - both hold of every record the basic URL parser returns *)
Definition spec_base_ok (sb : spec_url) : bool :=
  scheme_canon (su_scheme sb) && forallb no_slash (path_segments sb).

Lemma dec_digits_nonempty fuel : forall n acc, acc <> [] -> dec_digits fuel n acc <> [].
Proof.
  induction fuel as [|k IH]; intros n acc H; [exact H|]. cbn [dec_digits].
  destruct (n <? 10); [discriminate | apply IH; discriminate].
Qed.

Lemma serialize_integer_nonempty p : serialize_integer p <> [].
Proof.
  unfold serialize_integer. cbn [dec_digits]. destruct (p <? 10); [discriminate|].
  apply dec_digits_nonempty. discriminate.
Qed.

Lemma flat_map_snoc (P : list (list N)) (x : list N) :
  flat_map (fun s => 47 :: s) (P ++ [x]) = flat_map (fun s => 47 :: s) P ++ 47 :: x.
Proof. rewrite flat_map_app. cbn [flat_map]. rewrite app_nil_r. reflexivity. Qed.

(* pop_path on the serialized path of the base = "shorten" *)
Lemma pop_path_segments_st st pre P : st_is_file st = false -> forallb no_slash P = true ->
  pop_path st (nlen pre) (pre ++ flat_map (fun s => 47 :: s) P)
  = POk (match P with [] => pre | _ => Bs pre (removelast P) end).
Proof.
  intros Hst Hns. unfold pop_path.
  destruct (rev P) as [|x r] eqn:Er.
  - assert (P = []) as -> by (rewrite <- (rev_involutive P), Er; reflexivity).
    cbn [flat_map]. rewrite app_nil_r. replace (nlen pre <? nlen pre) with false by lia. reflexivity.
  - assert (P = rev r ++ [x]) as EP by (rewrite <- (rev_involutive P), Er; reflexivity).
    set (P' := rev r) in *. rewrite EP in *. rewrite removelast_last.
    rewrite forallb_app in Hns. apply andb_true_iff in Hns. destruct Hns as [_ Hx].
    cbn [forallb] in Hx. rewrite andb_true_r in Hx.
    rewrite flat_map_snoc. set (X := flat_map (fun s => 47 :: s) P').
    replace (nlen pre <? nlen (pre ++ X ++ 47 :: x)) with true by (symmetry; apply N.ltb_lt; lenl).
    rewrite nskipn_app_len. rewrite (rfind_app_last 47 X x) by exact Hx.
    rewrite Hst. cbn [andb]. unfold truncate.
    replace (nlen pre + nlen X + 1) with (nlen ((pre ++ X) ++ [47])) by lenl.
    replace (pre ++ X ++ 47 :: x) with (((pre ++ X) ++ [47]) ++ x) by (rewrite <- !app_assoc; reflexivity).
    rewrite nfirstn_app_len. rewrite Bs_flat.
    destruct (P' ++ [x]) eqn:E; [destruct P'; discriminate E | reflexivity].
Qed.

Lemma pop_path_segments pre P : forallb no_slash P = true ->
  pop_path STNotSpecial (nlen pre) (pre ++ flat_map (fun s => 47 :: s) P)
  = POk (match P with [] => pre | _ => Bs pre (removelast P) end).
Proof. exact (pop_path_segments_st STNotSpecial pre P eq_refl). Qed.

(* the common end of the two path arms *)
Section Arms.
Variable dbg : bool.
Variable hp hpo : list N -> result host.
Variable hd : host -> list N.
Variable ovr : option (list N -> list N).
Variable shp : bool -> list N -> option spec_host.
Variable shs : spec_host -> list N.

Definition arm_expr (b : url) (s0 r : list N) : pres url :=
  ' (s, _, rem) <~ parse_path dbg CUrlParser STNotSpecial true (path_start b) s0 r ;;
  with_query_and_fragment ovr CUrlParser STNotSpecial (scheme_end b) (username_end b) (host_start b) (host_end b)
                          (hosti b) (port b) (path_start b) s rem.

Theorem path_arm_related b sb P0 r :
  related dbg shs b sb -> has_opaque_path sb = false -> is_special_scheme (su_scheme sb) = false ->
  scheme_canon (su_scheme sb) = true ->
  usv_list r -> forallb no_slash P0 = true -> forallb no_qh (flat_map (fun s => 47 :: s) P0) = true ->
  spath_ok (ntnl r) P0 [] = true ->
  exists u, oob (U32_MAX_P < nlen (ser u)) (arm_expr b (Bs (nfirstn (path_start b) (ser b)) P0) r) u
            /\ related dbg shs u (rel_path_result sb P0 (ntnl r))
            /\ spec_base_ok (rel_path_result sb P0 (ntnl r)) = true.
Proof.
  intros R Hop Hnsp Hcan Hur Hns0 Hqh0 Hok.
  pose proof (rel_wf _ _ _ _ R) as W. pose proof (path_start_le_len b W) as Lps.
  set (pre := nfirstn (path_start b) (ser b)).
  assert (nlen pre = path_start b) as Lpre by (apply nlen_nfirstn; exact Lps).
  destruct (loop_from_segments dbg pre r P0 Hur Hns0 Hok Hqh0) as (Hpp & Hsnd & Hqh1 & Hns1 & Hne1).
  rewrite Lpre in Hpp.
  set (P1 := fst (spath (ntnl r) P0 [])) in *.
  set (T := flat_map (fun s => 47 :: s) P1) in *.
  set (rest := cbb_rest r) in *.
  set (q := pqf_q STNotSpecial rest). set (f := pqf_f rest).
  assert (usv_list rest) as Hurest by (apply usv_cbb_rest; exact Hur).
  pose proof (not_special_type _ Hnsp) as Hns.
  destruct (related_scheme_colon dbg shs b sb R) as (Ecol & Ese & Ec58).
  pose proof (wf_se_lt_ps b W) as Hseps.
  (* the Standard's record *)
  assert (rel_path_result sb P0 (ntnl r) = rel_url sb P1 q f) as ES.
  { unfold rel_path_result. fold P1. rewrite Hsnd. fold rest.
    rewrite (tail_url_st STNotSpecial); [reflexivity | exact Hnsp | reflexivity | reflexivity | apply cbb_rest_head]. }
  rewrite ES.
  assert (spec_base_ok (rel_url sb P1 q f) = true) as HBok.
  { unfold spec_base_ok, rel_url. cbn [su_scheme path_segments su_path]. rewrite Hcan, Hns1. reflexivity. }
  assert (match ntnl rest with [] => True | c :: _ => is_qh c = true end) as Hhead.
  { pose proof (cbb_rest_head r) as Hh. fold rest in Hh. destruct rest as [|d dr]; [exact I|]. destruct Hh as [Hh1 Hh2].
    rewrite ntnl_cons by exact Hh2. exact Hh1. }
  assert (opt_clean T_QUERY q) as Hq by (apply pqf_q_clean; exact Hurest).
  assert (exists body, T = 47 :: body) as [body ET].
  { unfold T. destruct P1 as [|p0 Pr]; [contradiction|]. eexists. reflexivity. }
  unfold arm_expr. fold pre. rewrite Hpp. cbn [pbind].
  destruct (has_authority_b b) eqn:Ha.
  - (* the base has an authority *)
    pose proof (related_host_iff dbg shs b sb R) as Hh. rewrite Ha in Hh.
    destruct (su_host sb) as [h|] eqn:Eh; [|discriminate Hh].
    pose proof (wf_auth_facts b W Ha) as F.
    pose proof (af_ue F) as B1. pose proof (af_hs F) as B2. pose proof (af_he F) as B3. pose proof (af_ps F) as B4.
    exists (auth_path_url b T q f). split; [|split; [|exact HBok]].
    + rewrite wqf_plain; [|lia|].
      2:{ unfold has_authority_b in Ha. rewrite <- Ha.
          apply (pre_starts_with (path_start b)); [|change (nlen s_css) with 3; lia].
          apply agree_pre_nfirstn. exact Lps. }
      eapply oob_bind.
      { apply (pqf_oob ovr (U32_MAX_P < nlen (ser (auth_path_url b T q f)))); [exact Hurest | | exact Hhead |].
        - rewrite <- app_assoc. rewrite nfirstn_app_le by lia. unfold pre. rewrite nfirstn_nfirstn by lia.
          fold (b_scheme b). rewrite (rel_sch _ _ _ _ R). apply query_enc_nonspecial. exact Hns.
        - fold q f. intros Hlt. exact Hlt. }
      fold q f. right. reflexivity.
    + apply (related_auth_path dbg shs b sb h P1 q f); assumption.
  - (* no authority: the canonical authority-less record *)
    pose proof (related_host_iff dbg shs b sb R) as Hh. rewrite Ha in Hh.
    destruct (su_host sb) as [h|] eqn:Eh; [discriminate Hh|].
    pose proof (wf_noauth_facts b W Ha) as F.
    apply byte_eqb_nnth in Ec58 || idtac.
    pose proof (related_not_cbb dbg shs b sb R Hop) as Hcb.
    pose proof (noauth_cbb_byte b W Hcb) as B47. apply byte_eqb_nnth in B47.
    destruct (noauth_front_eval dbg b Ec58 B47 (nf_ue F) (nf_host F)) as (_ & Fun & Fpw & Fhs).
    (* the Standard's record has no credentials, host or port *)
    pose proof (rel_api _ _ _ _ R) as A.
    destruct (accessors_reconcatenate dbg b W)
      as (sch0 & un & pw & hs & pth & qb & fb & Es1 & Eun & Epw & Ehs & Ept & Eq & Ef & _).
    rewrite (api_by_accessors dbg b W sch0 un pw hs pth qb fb Es1 Eun Epw Ehs Ept Eq Ef) in A.
    unfold api_of_parts, spec_api_list in A. injection A as _ _ E3 E4 _ _ E7 _ _ _.
    assert (un = []) as -> by congruence. assert (pw = None) as -> by congruence.
    rewrite (nf_port F) in E7. cbn [port_text optl] in E3, E4, E7.
    assert (su_port sb = None) as Epo.
    { unfold get_port in E7. destruct (su_port sb) as [p|]; [|reflexivity].
      exfalso. apply (serialize_integer_nonempty p). symmetry. exact E7. }
    assert (rel_url sb P1 q f = spec_noauth_url (su_scheme sb) P1 q f) as ->.
    { unfold rel_url, spec_noauth_url. unfold get_username in E3. unfold get_password in E4.
      rewrite <- E3, <- E4, Eh, Epo. reflexivity. }
    set (sch := su_scheme sb) in *.
    assert (wf_b (noauth_url sch T q f) = true) as WU.
    { rewrite ET. apply noauth_url_wf2; [exact Hcan | rewrite <- ET; exact Hqh1 | exact Hq]. }
    exists (noauth_url sch T q f). split; [|split; [|exact HBok]].
    2:{ apply related_noauth; assumption. }
    (* the model *)
    rewrite (nf_ue F), (nf_hs F), (nf_he F), (nf_host F), (nf_port F), Ese.
    replace (nlen sch + 1) with (nlen (sch ++ [58])) by (rewrite nlen_app; reflexivity).
    assert (oob (U32_MAX_P < nlen (ser (noauth_url sch T q f)))
                (' (s2, qs, fs) <~ parse_query_and_fragment ovr CUrlParser STNotSpecial (nlen sch) (noauth_pre sch T) rest ;;
                 POk (mkUrl s2 (nlen sch) (nlen (sch ++ [58])) (nlen (sch ++ [58])) (nlen (sch ++ [58])) HI_None None
                            (nlen (sch ++ [58]) + nlen (marker_of T)) qs fs))
                (noauth_url sch T q f)) as Hfin.
    { eapply oob_bind.
      { apply (pqf_oob ovr (U32_MAX_P < nlen (ser (noauth_url sch T q f)))); [exact Hurest | | exact Hhead |].
        - unfold noauth_pre. rewrite <- !app_assoc. rewrite nfirstn_app_len. apply query_enc_nonspecial. exact Hns.
        - fold q f. intros Hlt. exact Hlt. }
      fold q f. right. reflexivity. }
    destruct (nf_ps F) as [Eps|(Eps & M1 & M2 & M3)].
    + (* no marker in the base *)
      assert (pre = sch ++ [58]) as -> by (unfold pre; rewrite Eps; exact Ecol).
      rewrite Eps, Ese. replace (nlen sch + 1) with (nlen (sch ++ [58])) by (rewrite nlen_app; reflexivity).
      rewrite (wqf_noauth_eq hp hpo ovr sch T rest) by (rewrite ET; reflexivity). cbv zeta. exact Hfin.
    + (* the base carries the "/." marker *)
      apply byte_eqb_nnth in M1, M2.
      assert (pre = sch ++ [58; 47; 46]) as ->.
      { unfold pre. rewrite Eps. replace (scheme_end b + 3) with (scheme_end b + 1 + 1 + 1) by lia.
        rewrite (nfirstn_succ _ (scheme_end b + 1 + 1) 46) by (replace (scheme_end b + 1 + 1) with (scheme_end b + 2) by lia; exact M2).
        rewrite (nfirstn_succ _ (scheme_end b + 1) 47 M1). rewrite Ecol. rewrite <- !app_assoc. reflexivity. }
      rewrite Eps, Ese. replace (nlen sch + 3) with (nlen (sch ++ [58]) + 2) by (rewrite nlen_app; unfold nlen at 2; cbn [length]; lia).
      rewrite ET. rewrite (wqf_noauth_marker ovr sch body rest). cbv zeta. rewrite <- ET. exact Hfin.
Qed.

End Arms.

(* recognisers on the Standard's side.  Exclusion, in both: a ".." that would pop a drive-letter-shaped
   segment (finding F-C01-9, Known_C01 class 2) - spath_ok runs the Standard's own path state. *)
Definition in_class_rel_abs (sb : spec_url) (input : list N) : bool :=
  negb (has_opaque_path sb) && negb (is_special_scheme (su_scheme sb))
  && match spec_clean input with
     | c :: t => (c =? 47) && negb (starts_with_cp 47 t) && spath_ok t [] []
     | [] => false
     end.

Definition in_class_rel_path (sb : spec_url) (input : list N) : bool :=
  negb (has_opaque_path sb) && negb (is_special_scheme (su_scheme sb))
  && match spec_scheme (spec_clean input) with None => true | Some _ => false end
  && match spec_clean input with
     | c :: t => negb (c =? 47) && negb (c =? 63) && negb (c =? 35)
                 && spath_ok (c :: t) (removelast (path_segments sb)) []
     | [] => false
     end.

Section RelClasses.
Variable dbg : bool.
Variable hp hpo : list N -> result host.
Variable hd : host -> list N.
Variable ovr : option (list N -> list N).
Variable shp : bool -> list N -> option spec_host.
Variable shs : spec_host -> list N.

Lemma oob_agree (m : pres url) u su : oob (U32_MAX_P < nlen (ser u)) m u -> related dbg shs u su ->
  agree_rel_strict dbg shs m (BDone su).
Proof.
  intros HO R. cbn [agree_rel_strict]. rewrite <- (related_href dbg shs u su R).
  destruct HO as [[E B]|E]; [left; split; assumption | right; exists u; split; assumption].
Qed.

(* "/x/y?q#f" *)
Theorem class_rel_abs input b sb : usv_list input -> related dbg shs b sb ->
  scheme_canon (su_scheme sb) = true -> in_class_rel_abs sb input = true ->
  exists su, spec_basic_url_parse shp input (Some sb) = BDone su /\ spec_base_ok su = true
    /\ agree_rel_strict dbg shs (parse_url dbg hp hpo hd ovr (Some b) input) (BDone su).
Proof.
  intros Hu R Hcan Hc. unfold in_class_rel_abs in Hc.
  apply andb_true_iff in Hc. destruct Hc as [Hc Hok]. apply andb_true_iff in Hc. destruct Hc as [H1 H2].
  assert (has_opaque_path sb = false) as Hop by (destruct (has_opaque_path sb); [discriminate | reflexivity]).
  assert (is_special_scheme (su_scheme sb) = false) as Hnsp
    by (destruct (is_special_scheme (su_scheme sb)); [discriminate | reflexivity]).
  destruct (spec_clean input) as [|c t] eqn:Ecl; [discriminate Hok|].
  apply andb_true_iff in Hok. destruct Hok as [Hok Hsp]. apply andb_true_iff in Hok. destruct Hok as [E47 H47].
  apply N.eqb_eq in E47. subst c. apply negb_true_iff in H47.
  exists (rel_path_result sb [] t).
  assert (spec_basic_url_parse shp input (Some sb) = BDone (rel_path_result sb [] t)) as HS.
  { apply spec_parse_of_runs. exact (runs_rel_abs shp (spec_clean input) sb Hop Hnsp t Ecl H47). }
  split; [exact HS|].
  (* the model *)
  pose proof (rel_wf _ _ _ _ R) as W. pose proof (path_start_le_len b W) as Lps.
  rewrite spec_clean_is_ntnl_trim in Ecl. set (l0 := input_new_trim_c0 input) in *.
  assert (usv_list l0) as Hul0 by (apply usv_trim; exact Hu).
  destruct (inp_next_some l0 47 t Ecl) as (r1 & En & Er1 & _).
  pose proof (inp_next_usv l0 47 r1 Hul0 En) as Hur1.
  assert (parse_url dbg hp hpo hd ovr (Some b) input
          = arm_expr dbg ovr b (Bs (nfirstn (path_start b) (ser b)) []) r1) as Epu.
  { rewrite (parse_url_relative dbg hp hpo hd ovr b input 47 t
               (related_not_cbb dbg shs b sb R Hop) (related_not_special dbg shs b sb R Hnsp) Ecl eq_refl eq_refl).
    fold l0. unfold parse_relative, inp_split_first. rewrite En.
    replace (47 =? 63) with false by reflexivity. replace (47 =? 35) with false by reflexivity.
    replace (47 =? 47) with true by reflexivity. cbn [orb st_is_special andb].
    destruct (inp_count_matching (fun d => (d =? 47) || (d =? 92) && false) l0) as [sl rem'] eqn:Ecm.
    assert (sl < 2) as Hsl.
    { pose proof (inp_count_matching_fst (fun d => (d =? 47) || (d =? 92) && false) l0) as Hf.
      rewrite Ecm in Hf. cbn [fst] in Hf. rewrite Hf, Ecl. cbn [count_leading].
      replace (47 =? 47) with true by reflexivity. cbn [orb].
      destruct t as [|d t']; [cbn [count_leading]; lia|]. cbn [count_leading starts_with_cp] in *.
      rewrite H47. rewrite andb_false_r. cbn [orb]. lia. }
    replace (2 <=? sl) with false by lia.
    unfold arm_expr. assert (Bs (nfirstn (path_start b) (ser b)) [] = nfirstn (path_start b) (ser b) ++ [47]) as ->
      by (unfold Bs; cbn [segs_text map concat]; apply app_nil_r).
    reflexivity. }
  rewrite <- Er1 in Hsp.
  destruct (path_arm_related dbg hp hpo ovr shp shs b sb [] r1 R Hop Hnsp Hcan Hur1 eq_refl eq_refl Hsp) as (u & HO & Ru & Hb).
  rewrite Er1 in Ru, Hb. split; [exact Hb|]. rewrite Epu. exact (oob_agree _ u _ HO Ru).
Qed.

(* "x/../y?q#f" *)
Lemma removelast_prefix_no_qh (P : list (list N)) :
  forallb no_qh (flat_map (fun s => 47 :: s) P) = true ->
  forallb no_qh (flat_map (fun s => 47 :: s) (removelast P)) = true.
Proof.
  intros H. destruct (rev P) as [|x r] eqn:Er.
  - assert (P = []) as -> by (rewrite <- (rev_involutive P), Er; reflexivity). reflexivity.
  - assert (P = rev r ++ [x]) as -> by (rewrite <- (rev_involutive P), Er; reflexivity).
    rewrite removelast_last. rewrite flat_map_snoc, forallb_app in H. apply andb_true_iff in H. tauto.
Qed.

Theorem class_rel_path input b sb : usv_list input -> related dbg shs b sb ->
  spec_base_ok sb = true -> in_class_rel_path sb input = true ->
  exists su, spec_basic_url_parse shp input (Some sb) = BDone su /\ spec_base_ok su = true
    /\ agree_rel_strict dbg shs (parse_url dbg hp hpo hd ovr (Some b) input) (BDone su).
Proof.
  intros Hu R Hbok Hc. unfold in_class_rel_path in Hc.
  apply andb_true_iff in Hbok. destruct Hbok as [Hcan HnsP].
  apply andb_true_iff in Hc. destruct Hc as [Hc Hok]. apply andb_true_iff in Hc. destruct Hc as [Hc Hsch].
  apply andb_true_iff in Hc. destruct Hc as [H1 H2].
  assert (has_opaque_path sb = false) as Hop by (destruct (has_opaque_path sb); [discriminate | reflexivity]).
  assert (is_special_scheme (su_scheme sb) = false) as Hnsp
    by (destruct (is_special_scheme (su_scheme sb)); [discriminate | reflexivity]).
  assert (spec_scheme (spec_clean input) = None) as Hs by (destruct (spec_scheme (spec_clean input)); [discriminate | reflexivity]).
  destruct (spec_clean input) as [|c t] eqn:Ecl; [discriminate Hok|].
  apply andb_true_iff in Hok. destruct Hok as [Hok Hsp]. apply andb_true_iff in Hok. destruct Hok as [Hok E35].
  apply andb_true_iff in Hok. destruct Hok as [E47 E63]. apply negb_true_iff in E47, E63, E35.
  set (P := path_segments sb) in *.
  exists (rel_path_result sb (removelast P) (c :: t)).
  assert (spec_basic_url_parse shp input (Some sb) = BDone (rel_path_result sb (removelast P) (c :: t))) as HS.
  { apply spec_parse_of_runs. rewrite Ecl.
    pose proof (runs_rel_path shp (c :: t) sb Hop Hnsp c t eq_refl Hs E47 E63 E35) as K. exact K. }
  split; [exact HS|].
  (* the model *)
  pose proof (rel_wf _ _ _ _ R) as W. pose proof (path_start_le_len b W) as Lps.
  destruct (base_path_facts dbg shs b sb R Hop) as (Lpre & Ebq & HqhP). fold P in Ebq, HqhP.
  set (pre := nfirstn (path_start b) (ser b)) in *.
  rewrite spec_clean_is_ntnl_trim in Ecl. set (l0 := input_new_trim_c0 input) in *.
  assert (usv_list l0) as Hul0 by (apply usv_trim; exact Hu).
  destruct (inp_next_some l0 c t Ecl) as (r1 & En & Er1 & _).
  assert (parse_url dbg hp hpo hd ovr (Some b) input = arm_expr dbg ovr b (Bs pre (removelast P)) l0) as Epu.
  { rewrite (parse_url_relative dbg hp hpo hd ovr b input c t
               (related_not_cbb dbg shs b sb R Hop) (related_not_special dbg shs b sb R Hnsp) Ecl Hs E35).
    fold l0. unfold parse_relative, inp_split_first. rewrite En. rewrite E63, E35, E47.
    cbn [orb st_is_special andb]. rewrite andb_false_r. rewrite Ebq, <- Lpre.
    rewrite (pop_path_segments pre P HnsP). cbn [pbind].
    rewrite (related_not_special dbg shs b sb R Hnsp). cbn [st_is_special orb].
    rewrite inp_is_empty_ntnl, Ecl. cbn [negb].
    rewrite match47, E47. unfold arm_expr. rewrite <- Lpre.
    destruct P as [|p0 Pr] eqn:EP.
    - rewrite N.eqb_refl. cbn [andb removelast].
      assert (Bs pre [] = pre ++ [47]) as -> by (unfold Bs; cbn [segs_text map concat]; apply app_nil_r).
      reflexivity.
    - pose proof (Bs_len_ge pre (removelast (p0 :: Pr))) as Lb.
      replace (nlen (Bs pre (removelast (p0 :: Pr))) =? nlen pre) with false by lia. cbn [andb]. reflexivity. }
  rewrite <- Ecl in Hsp.
  destruct (path_arm_related dbg hp hpo ovr shp shs b sb (removelast P) l0 R Hop Hnsp Hcan Hul0
              (no_slash_removelast P HnsP) (removelast_prefix_no_qh P HqhP) Hsp) as (u & HO & Ru & Hb).
  fold pre in HO. rewrite Ecl in Ru, Hb. split; [exact Hb|]. rewrite Epu. exact (oob_agree _ u _ HO Ru).
Qed.

End RelClasses.

(* the Standard's side alone, as the parser is invoked *)
Section SpecRelParse.
Variable shp : bool -> list N -> option spec_host.

Theorem spec_rel_abs input sb t : has_opaque_path sb = false -> is_special_scheme (su_scheme sb) = false ->
  spec_clean input = 47 :: t -> starts_with_cp 47 t = false ->
  spec_basic_url_parse shp input (Some sb) = BDone (rel_path_result sb [] t).
Proof.
  intros Hop Hnsp Ecl H47. apply spec_parse_of_runs. exact (runs_rel_abs shp (spec_clean input) sb Hop Hnsp t Ecl H47).
Qed.

Theorem spec_rel_path input sb c t : has_opaque_path sb = false -> is_special_scheme (su_scheme sb) = false ->
  spec_clean input = c :: t -> spec_scheme (c :: t) = None ->
  (c =? 47) = false -> (c =? 63) = false -> (c =? 35) = false ->
  spec_basic_url_parse shp input (Some sb) = BDone (rel_path_result sb (removelast (path_segments sb)) (c :: t)).
Proof.
  intros Hop Hnsp Ecl Hs E47 E63 E35. apply spec_parse_of_runs. rewrite Ecl.
  exact (runs_rel_path shp (c :: t) sb Hop Hnsp c t eq_refl Hs E47 E63 E35).
Qed.

End SpecRelParse.

(* containment on the Standard's side: the path arms keep scheme, credentials, host and port of the base *)
Definition spec_same_front (sb su : spec_url) : Prop :=
  su_scheme su = su_scheme sb /\ su_username su = su_username sb /\ su_password su = su_password sb
  /\ su_host su = su_host sb /\ su_port su = su_port sb.

Lemma rel_path_result_front sb P0 t : spec_same_front sb (rel_path_result sb P0 t).
Proof.
  unfold rel_path_result, tail_url, spec_same_front. destruct (snd (spath t P0 [])) as [|c r]; [repeat split|].
  destruct (c =? 63); [|repeat split; reflexivity].
  unfold query_final, frag_opt. destruct (C01_EqRun.after_hash r); repeat split; reflexivity.
Qed.

(* the three classes together *)
Definition in_class_relative (sb : spec_url) (input : list N) : bool :=
  in_class_rel_abs sb input || in_class_rel_path sb input || in_class_rel_authority sb input.

Theorem class_relative dbg hp hpo hd ovr shp shs input b sb : usv_list input -> related dbg shs b sb ->
  spec_base_ok sb = true -> in_class_relative sb input = true ->
  (in_class_rel_authority sb input = true -> host_agree hpo hd shp shs (rel_host_text input)) ->
  agree_rel_strict dbg shs (parse_url dbg hp hpo hd ovr (Some b) input) (spec_basic_url_parse shp input (Some sb)).
Proof.
  intros Hu R Hb Hc HH. pose proof Hb as Hb0. apply andb_true_iff in Hb0. destruct Hb0 as [Hcan _].
  unfold in_class_relative in Hc. apply orb_true_iff in Hc. destruct Hc as [Hc|Hc]; [apply orb_true_iff in Hc; destruct Hc as [Hc|Hc]|].
  - destruct (class_rel_abs dbg hp hpo hd ovr shp shs input b sb Hu R Hcan Hc) as (su & -> & _ & A). exact A.
  - destruct (class_rel_path dbg hp hpo hd ovr shp shs input b sb Hu R Hb Hc) as (su & -> & _ & A). exact A.
  - exact (class_rel_authority dbg hp hpo hd ovr shp shs input b sb Hu R Hcan Hc (HH Hc)).
Qed.
