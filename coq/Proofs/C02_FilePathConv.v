(* Proofs/C02_FilePathConv.v - Url::from_file_path / from_directory_path (Model/FilePath.v, unix) give canonical file
   records: by C20's shape theorem the result is  "file://" "/" enc(c1) "/" ... "/" enc(cn)  for the kept components of
   the path; the encoding (SPECIAL_PATH_SEGMENT set) of a component other than "." and ".." is a canonical segment of a
   special scheme (enc_good_seg_sp: clean for the path set, no '/', no '\\', no dot segment in any spelling - '%' is
   encoded, so "%2e" cannot come out, C06_SegPush.encode_single_dot / encode_double_dot).  Premises: no ".." component
   (with one the result is not a fixpoint: F-C02-5, from_file_path_example) and the result outside Known_file_drive
   (a component like "C:"). *)
From Coq Require Import String.
From RU Require Import Base.Prelude Model.AsciiSet Gen.Tables Model.PercentEncoding Model.HostT Model.UrlRecord
  Model.Parser Model.FilePath Proofs.C14_Enc Proofs.C02_Enc Proofs.C02_Parts Proofs.C02_Path Proofs.C02_PathL1
  Proofs.C02_Reach Proofs.C02_PathSp Proofs.C02_SetQF Proofs.C02_Segments Proofs.C20_Path Proofs.C20_RT
  Proofs.C06_SegPush Proofs.C02_File Proofs.C02_FileCanon Proofs.C02_FileParse.
From RU Require Proofs.C02_Reach4.
Open Scope N_scope.
Open Scope list_scope.

(* what the encoder writes for arbitrary bytes satisfies every predicate that holds of '%', the hex digits and the
   kept bytes of the set *)
Lemma enc_bytes_sat S (Q : N -> bool) c : Q 37 = true -> (forall d, d < 16 -> Q (hex_upper d) = true) ->
  kept_sat S Q = true -> bytes c -> forallb Q (encode S c) = true.
Proof.
  intros H37 Hh HS. induction c as [|b c IH]; intros Hb; [reflexivity|].
  inversion Hb as [|? ? Hb1 Hb2]; subst. rewrite encode_cons, forallb_app, (IH Hb2), andb_true_r.
  unfold enc1. destruct (should_encode S b) eqn:E.
  - unfold enc_byte_spec. cbn [forallb]. unfold is_byte in Hb1.
    rewrite H37, (Hh (b / 16)), (Hh (b mod 16)); [reflexivity | | ].
    + apply N.mod_lt. lia.
    + apply N.div_lt_upper_bound; lia.
  - assert (clean S [b] = true) as Hc by (unfold clean, C02_Enc.kept; cbn [forallb]; rewrite E; reflexivity).
    exact (clean_forallb S Q [b] HS Hc).
Qed.


Lemma sps37 : should_encode T_SPECIAL_PATH_SEGMENT 37 = true. Proof. vm_compute. reflexivity. Qed.
Lemma sps46 : should_encode T_SPECIAL_PATH_SEGMENT 46 = false. Proof. vm_compute. reflexivity. Qed.

(* the encoding of a path component other than "." and ".." is a canonical segment of a special scheme *)
Lemma enc_good_seg_sp k : bytes k -> k <> [46] -> k <> [46; 46] -> good_seg_sp (enc k) = true.
Proof.
  intros Hb H1 H2. unfold good_seg_sp, good_seg, enc.
  assert (clean T_PATH (encode T_SPECIAL_PATH_SEGMENT k) = true) as ->
    by exact (enc_bytes_sat _ (C02_Enc.kept T_PATH) k kept_PATH_37 hex_kept_PATH (seg_sat_PATH STFile) Hb).
  assert (no_slash (encode T_SPECIAL_PATH_SEGMENT k) = true) as ->
    by exact (enc_bytes_sat _ (fun c => negb (c =? 47)) k eq_refl C02_PathL1.hex_not_slash (seg_sat_47 STFile) Hb).
  assert (no_byte 92 (encode T_SPECIAL_PATH_SEGMENT k) = true) as ->.
  { apply (enc_bytes_sat _ (fun c => negb (c =? 92)) k eq_refl); [|exact (seg_sat_92 STFile eq_refl) | exact Hb].
    intros d Hd. apply hex_not_b; [exact Hd | lia]. }
  destruct (is_single_dot (encode T_SPECIAL_PATH_SEGMENT k)) eqn:Es.
  { exfalso. apply H1. exact (encode_single_dot T_SPECIAL_PATH_SEGMENT sps37 sps46 k Hb Es). }
  destruct (is_double_dot (encode T_SPECIAL_PATH_SEGMENT k)) eqn:Ed.
  { exfalso. apply H2. exact (encode_double_dot T_SPECIAL_PATH_SEGMENT sps37 sps46 k Hb Ed). }
  reflexivity.
Qed.

Lemma join_slash_segs l : join_slash l ++ [47] = 47 :: segs_text l.
Proof.
  induction l as [|c cs IH]; [reflexivity|]. rewrite join_slash_cons. unfold segs_text. cbn [map concat]. fold (segs_text cs).
  cbn [app]. rewrite <- !app_assoc. rewrite IH. reflexivity.
Qed.

Lemma join_slash_path_text l0 t : join_slash (l0 ++ [t]) = path_text l0 t.
Proof.
  rewrite join_slash_app. unfold path_text. change (join_slash [t]) with (47 :: t ++ []). rewrite app_nil_r.
  change (join_slash l0 ++ 47 :: t) with (join_slash l0 ++ [47] ++ t). rewrite app_assoc, join_slash_segs. reflexivity.
Qed.

Section FromFilePath.
Variable hp : list N -> result host.
Variable hd : host -> list N.

Lemma file_rec_curl T : file_rec T = file_curl hd None T None None.
Proof.
  unfold file_rec, file_curl, qf_url, file_pre, file_front, qf_text. cbn [fhost_text fhost_hi qf_qtext qf_ftext qf_qs qf_fs app].
  rewrite !app_nil_r. reflexivity.
Qed.

Lemma kept_piece_facts p k : In k (C20_Path.kept p) -> k <> [] /\ k <> [46].
Proof.
  unfold C20_Path.kept. intros H. apply filter_In in H. destruct H as [_ H]. unfold keep_piece in H.
  apply andb_true_iff in H. destruct H as [H1 H2]. split; intros ->; [discriminate H1 | discriminate H2].
Qed.

(* the encoded kept components of a path without ".." are canonical, non-empty segments *)
Lemma kept_enc_segs p : bytes p -> Forall (fun k => k <> [46; 46]) (C20_Path.kept p) ->
  forallb good_seg_sp (map enc (C20_Path.kept p)) = true /\ Forall (fun s => s <> []) (map enc (C20_Path.kept p)).
Proof.
  intros Hb Hdd. pose proof (kept_bytes p Hb) as Hkb. split.
  - apply forallb_forall. intros s Hs. apply in_map_iff in Hs. destruct Hs as (k & <- & Hin).
    apply enc_good_seg_sp; [exact (proj1 (Forall_forall _ _) Hkb k Hin) | exact (proj2 (kept_piece_facts p k Hin))
                           | exact (proj1 (Forall_forall _ _) Hdd k Hin)].
  - apply Forall_forall. intros s Hs. apply in_map_iff in Hs. destruct Hs as (k & <- & Hin).
    apply enc_nonempty. exact (proj1 (kept_piece_facts p k Hin)).
Qed.

Lemma first_nonempty_Forall segs : Forall (fun s => s <> []) segs -> first_nonempty segs.
Proof. intros [|s r H _]; [exact I | exact H]. Qed.

Lemma url_path_snoc l0 t : url_path_of (l0 ++ [t]) = path_text (map enc l0) (enc t).
Proof.
  unfold url_path_of. destruct (l0 ++ [t]) eqn:El; [destruct l0; discriminate El|]. rewrite <- El.
  rewrite map_app. cbn [map]. apply join_slash_path_text.
Qed.

(* a record  "file://" path  over canonical segments *)
Lemma file_rec_Canon segs last : forallb good_seg_sp segs = true -> good_seg_sp last = true -> first_nonempty segs ->
  Known_file_drive (file_rec (path_text segs last)) = false -> FileCanon hp hd (file_rec (path_text segs last)).
Proof.
  intros Hs Hl Hf Hk. rewrite file_rec_curl in *.
  exact (file_good_out hp hd None segs last None None I (file_front_none_bound hd) Hs Hl Hf I I I I Hk).
Qed.

(* Url::from_file_path: when no component of the path is "..", the result outside Known_file_drive is a canonical
   file record (hence a fixpoint of re-parsing); with a ".." component it is not (F-C02-5) *)
Theorem from_file_path_File p u : bytes p -> from_file_path p = FOk u ->
  Forall (fun k => k <> [46; 46]) (C20_Path.kept p) -> Known_file_drive u = false -> FileCanon hp hd u.
Proof.
  intros Hb E Hdd Hk. destruct (path_is_absolute p) eqn:Ha.
  2:{ rewrite (proj1 (from_file_path_rel p Ha)) in E. discriminate E. }
  rewrite (from_file_path_spec p Hb Ha) in E. inversion E; subst u. clear E.
  destruct (kept_enc_segs p Hb Hdd) as [Hg Hne].
  destruct (snoc_cases (C20_Path.kept p)) as [E0 | (l0 & t & E0)]; rewrite E0 in *.
  - exact (file_rec_Canon [] [] eq_refl eq_refl I Hk).
  - rewrite url_path_snoc in *. rewrite map_app in Hg, Hne. cbn [map] in Hg, Hne. rewrite forallb_snoc in Hg.
    apply andb_true_iff in Hg. destruct Hg as [Hg1 Hg2]. apply Forall_app in Hne.
    exact (file_rec_Canon (map enc l0) (enc t) Hg1 Hg2 (first_nonempty_Forall _ (proj1 Hne)) Hk).
Qed.

Lemma ends_with_app_last b x l : l <> [] -> ends_with_byte b (x ++ l) = ends_with_byte b l.
Proof.
  intros Hl. unfold ends_with_byte. rewrite rev_app_distr. destruct (rev l) as [|c r] eqn:E; [|reflexivity].
  exfalso. apply Hl. rewrite <- (rev_involutive l), E. reflexivity.
Qed.

Lemma file_rec_no_slash_end segs last : last <> [] -> no_slash last = true ->
  ends_with_byte 47 (ser (file_rec (path_text segs last))) = false.
Proof.
  intros Hne Hns. unfold file_rec, path_text. cbn [ser].
  change (s_file_css ++ 47 :: segs_text segs ++ last) with (s_file_css ++ [47] ++ segs_text segs ++ last).
  rewrite !app_assoc, (ends_with_app_last 47 _ last Hne).
  unfold ends_with_byte. unfold no_slash in Hns. rewrite <- (rev_involutive last) in Hns.
  destruct (rev last) as [|c r]; [reflexivity|]. cbn [rev] in Hns. rewrite forallb_app in Hns.
  apply andb_true_iff in Hns. destruct Hns as [_ Hns]. cbn [forallb] in Hns. rewrite andb_true_r in Hns.
  apply negb_true_iff in Hns. exact Hns.
Qed.

(* Url::from_directory_path: the same with a trailing slash *)
Theorem from_directory_path_File p u : bytes p -> from_directory_path p = FOk u ->
  Forall (fun k => k <> [46; 46]) (C20_Path.kept p) -> Known_file_drive u = false -> FileCanon hp hd u.
Proof.
  intros Hb E Hdd Hk. destruct (path_is_absolute p) eqn:Ha.
  2:{ rewrite (proj2 (from_file_path_rel p Ha)) in E. discriminate E. }
  unfold from_directory_path in E. rewrite (from_file_path_spec p Hb Ha) in E.
  destruct (kept_enc_segs p Hb Hdd) as [Hg Hne].
  destruct (snoc_cases (C20_Path.kept p)) as [E0 | (l0 & t & E0)]; rewrite E0 in *.
  - change (ends_with_byte 47 (ser (file_rec (url_path_of [])))) with true in E. inversion E; subst u. clear E.
    exact (file_rec_Canon [] [] eq_refl eq_refl I Hk).
  - rewrite url_path_snoc in E.
    assert (In (enc t) (map enc (l0 ++ [t]))) as Hin by (apply in_map, in_or_app; right; left; reflexivity).
    rewrite (file_rec_no_slash_end (map enc l0) (enc t) (proj1 (Forall_forall _ _) Hne _ Hin)
               (proj1 (proj2 (good_seg_sp_parts _ (proj1 (forallb_forall _ _) Hg _ Hin))))) in E.
    assert (set_ser (file_rec (path_text (map enc l0) (enc t))) (ser (file_rec (path_text (map enc l0) (enc t))) ++ [47])
            = file_rec (path_text (map enc (l0 ++ [t])) [])) as EU.
    { rewrite map_app. cbn [map]. unfold set_ser, file_rec. cbn [ser scheme_end username_end host_start host_end hosti port
        path_start query_start fragment_start]. f_equal. rewrite <- app_assoc. f_equal.
      unfold path_text. rewrite segs_text_snoc. rewrite app_nil_r. cbn [app]. rewrite <- !app_assoc. reflexivity. }
    rewrite EU in E. inversion E; subst u. clear E.
    exact (file_rec_Canon (map enc (l0 ++ [t])) [] Hg eq_refl (first_nonempty_Forall _ Hne) Hk).
Qed.
End FromFilePath.

(* non-vacuity, and the class excluded by the premise (F-C02-5): with a ".." component the result is no fixpoint *)
Example from_file_path_example :
  match from_file_path (B "/a/./b c//%2e") with
  | FOk u => list_eqb (ser u) (B "file:///a/b%20c/%252e") && C02_Reach4.m_fix u && negb (Known_file_drive u)
             && forallb (fun k => negb (list_eqb k [46; 46])) (C20_Path.kept (B "/a/./b c//%2e"))
  | _ => false end = true
  /\ match from_directory_path (B "/a/b") with
     | FOk u => list_eqb (ser u) (B "file:///a/b/") && C02_Reach4.m_fix u | _ => false end = true
  /\ match from_file_path (B "/a/../b") with
     | FOk u => list_eqb (ser u) (B "file:///a/../b") && negb (C02_Reach4.m_fix u) && negb (Known_file_drive u)
     | _ => false end = true.
Proof. vm_compute. repeat split. Qed.
