(* Proofs/C02_Opaque.v - class (i) of DESIGN B.5: URLs with an opaque path, parsed without base.
   L1: the parser's result has the canonical form  scheme ":" P ["?" q] ["#" f]  with every part
   clean for its encode set; L3: parsing that form gives back the same record. *)
From RU Require Import Base.Prelude Base.Utf8 Base.Utf8Facts Model.AsciiSet Gen.Tables
  Model.PercentEncoding Model.HostT Model.UrlRecord Model.Parser Model.WF
  Proofs.ListN Proofs.C14_Set Proofs.C14_Enc Proofs.C14_Views Proofs.C02_Enc Proofs.C02_Parts.

Lemma utf8_lossy_ascii t : ascii t -> utf8_lossy t = t.
Proof.
  intros H. rewrite <- (utf8_encode_ascii t H) at 1. apply utf8_lossy_encode. apply ascii_usv. exact H.
Qed.

Lemma nfirstn_app_len a b : nfirstn (nlen a) (a ++ b) = a.
Proof.
  unfold nfirstn, nlen. rewrite Nat2N.id. rewrite firstn_app, firstn_all, Nat.sub_diag.
  cbn [firstn]. apply app_nil_r.
Qed.

Lemma nskipn_app_add a b k : nskipn (nlen a + k) (a ++ b) = nskipn k b.
Proof. rewrite N.add_comm, <- nskipn_nskipn, nskipn_app_len. reflexivity. Qed.

Lemma byte_eqb_app a c b : byte_eqb (a ++ c :: b) (nlen a) c = true.
Proof.
  unfold byte_eqb, nnth, nlen. rewrite Nat2N.id. rewrite nth_error_app2 by lia.
  rewrite Nat.sub_diag. cbn [nth_error]. apply N.eqb_refl.
Qed.

Lemma scheme_out_char_scheme_char c : scheme_out_char c = true -> scheme_char c = true.
Proof. unfold scheme_out_char, scheme_char, is_alnum, is_alpha, is_lower, is_upper, is_digit. intros H. lia. Qed.

Lemma forallb_impl {A} (f g : A -> bool) l : (forall x, f x = true -> g x = true) -> forallb f l = true -> forallb g l = true.
Proof. intros H. rewrite !forallb_forall. intros Hf x Hx. apply H. apply Hf. exact Hx. Qed.

Lemma starts_with_ss_of_s l : starts_with [47] l = false -> starts_with s_ss l = false.
Proof.
  destruct l as [|x r]; [reflexivity|]. unfold s_ss. cbn [starts_with]. rewrite !andb_true_r.
  intros ->. reflexivity.
Qed.

Lemma first_ok_rev_app a t : t <> [] -> Forall (fun c => is_c0_or_space c = false) t -> first_ok (rev (a ++ t)).
Proof.
  intros Hne Hf. rewrite rev_app_distr. apply Forall_rev in Hf.
  destruct (rev t) as [|x y] eqn:E.
  - exfalso. apply Hne. rewrite <- (rev_involutive t), E. reflexivity.
  - cbn [app first_ok]. inversion Hf; assumption.
Qed.

Definition above_space (c : N) : bool := negb (is_c0_or_space c).

Lemma forallb_above t : forallb above_space t = true -> Forall (fun c => is_c0_or_space c = false) t.
Proof.
  rewrite forallb_forall. intros H. apply Forall_forall. intros x Hx. specialize (H x Hx).
  unfold above_space in H. apply negb_true_iff in H. exact H.
Qed.

Lemma kept_FRAGMENT_above : kept_sat T_FRAGMENT above_space = true. Proof. vm_compute. reflexivity. Qed.
Lemma kept_QUERY_above : kept_sat T_QUERY above_space = true. Proof. vm_compute. reflexivity. Qed.
Lemma kept_SQUERY_above : kept_sat T_SPECIAL_QUERY above_space = true. Proof. vm_compute. reflexivity. Qed.
Lemma kept_PATH_above : kept_sat T_PATH above_space = true. Proof. vm_compute. reflexivity. Qed.

(* the last byte of an encoded string whose last character is above U+0020 *)
Lemma hex_above d : d < 16 -> above_space (hex_upper d) = true.
Proof. intros H. pose proof (hex_upper_ge d H). unfold above_space, is_c0_or_space. lia. Qed.

Lemma encode_utf8_last S cs x : usv_list cs -> is_usv x -> is_c0_or_space x = false ->
  first_ok (rev (encode S (utf8_encode (cs ++ [x])))).
Proof.
  intros Hcs Hx Hsp. rewrite enc_utf8_app. apply first_ok_rev_app.
  - apply encode_utf8_nonempty.
  - apply forallb_above. apply encode_utf8_forallb; [reflexivity | exact hex_above | constructor; [exact Hx | constructor] |].
    constructor; [|constructor]. intros _. unfold above_space. rewrite Hsp. reflexivity.
Qed.

(* the last character of the opaque path when no '?' / '#' follows *)
Lemma cbb_chars_snoc a x : is_tnl x = false -> cbb_rest (a ++ [x]) = [] -> cbb_chars (a ++ [x]) = cbb_chars a ++ [x].
Proof.
  intros Ht. induction a as [|c r IH]; cbn [app cbb_chars cbb_rest]; intros Hr.
  - rewrite Ht in *. destruct (is_qh x); [discriminate | reflexivity].
  - destruct (is_tnl c); [exact (IH Hr)|]. destruct (is_qh c); [discriminate|]. cbn [app]. f_equal. exact (IH Hr).
Qed.

Lemma opaque_of_last l : usv_list l -> cbb_rest l = [] -> first_ok (rev l) -> first_ok (rev (opaque_of l)).
Proof.
  intros Hu Hr Hl. destruct (rev l) as [|x y] eqn:E.
  - apply (f_equal (@rev N)) in E. rewrite rev_involutive in E. subst l. exact I.
  - apply (f_equal (@rev N)) in E. rewrite rev_involutive in E. cbn [rev] in E. subst l. cbn [first_ok] in Hl.
    apply usv_app in Hu. destruct Hu as [Hu1 Hu2]. apply usv_cons in Hu2.
    unfold opaque_of. rewrite cbb_chars_snoc by (unfold is_tnl, is_c0_or_space in *; lia || exact Hr).
    apply encode_utf8_last; [apply usv_cbb_chars; exact Hu1 | tauto | exact Hl].
Qed.

Lemma opaque_of_head l : usv_list l -> inp_split_prefix_char 47 l = None ->
  starts_with [47] (opaque_of l) = false.
Proof.
  unfold inp_split_prefix_char, opaque_of. induction l as [|c r IH]; intros Hu H; [reflexivity|].
  apply usv_cons in Hu. destruct Hu as [Hc Hr]. cbn [cbb_chars].
  destruct (is_tnl c) eqn:Et.
  - rewrite inp_next_tnl in H by exact Et. exact (IH Hr H).
  - rewrite inp_next_cons in H by exact Et. destruct (c =? 47) eqn:E47; [discriminate|].
    destruct (is_qh c); [reflexivity|].
    rewrite <- (app_nil_r (encode _ _)). apply encode_utf8_head; [exact Hc | lia].
Qed.

Definition opaque_pre (sch P : list N) : list N := (sch ++ [58]) ++ P.
Definition opaque_ser (sch P : list N) (q f : option (list N)) : list N := opaque_pre sch P ++ qf_text q f.
Definition opaque_url (sch P : list N) (q f : option (list N)) : url :=
  let ps := nlen (sch ++ [58]) in
  mkUrl (opaque_ser sch P q f) (nlen sch) ps ps ps HI_None None ps
        (qf_qs (nlen (opaque_pre sch P)) q) (qf_fs (nlen (opaque_pre sch P)) q f).

Record opaque_ok (sch P : list N) (q f : option (list N)) : Prop := mk_opaque_ok {
  ok_sch : scheme_canon sch = true;
  ok_ns : scheme_type_of sch = STNotSpecial;
  ok_P : clean T_CONTROLS P = true;
  ok_Pq : forallb not_tnl_qh P = true;
  ok_Ph : starts_with [47] P = false;
  ok_q : opt_clean T_QUERY q;
  ok_f : opt_clean T_FRAGMENT f;
  ok_last : q = None -> f = None -> first_ok (rev P);
  ok_b1 : nlen (sch ++ [58]) <= U32_MAX_P;
  ok_bq : opt_le (qf_qs (nlen (opaque_pre sch P)) q) U32_MAX_P;
  ok_bf : opt_le (qf_fs (nlen (opaque_pre sch P)) q f) U32_MAX_P
}.

Lemma query_enc_nonspecial ovr sch : scheme_type_of sch = STNotSpecial -> query_enc ovr sch = utf8_encode.
Proof.
  unfold query_enc, scheme_type_of. destruct ovr as [o|]; [|reflexivity].
  destruct (list_eqb sch s_http) eqn:E1; [discriminate|].
  destruct (list_eqb sch s_https) eqn:E2; [discriminate|].
  destruct (list_eqb sch s_ws) eqn:E3; [discriminate|].
  destruct (list_eqb sch s_wss) eqn:E4; [discriminate|].
  destruct (list_eqb sch s_ftp) eqn:E5; [discriminate|].
  destruct (list_eqb sch s_file) eqn:E6; [discriminate|]. reflexivity.
Qed.

(* cannot_be_a_base of the form needs only the first byte of the path *)
Lemma opaque_cbb_gen sch P q f : starts_with [47] P = false -> cannot_be_a_base (opaque_url sch P q f) = Some true.
Proof.
  intros HP. unfold cannot_be_a_base, u_slice_from, opaque_url. cbn [ser scheme_end].
  assert (nlen sch + 1 = nlen (sch ++ [58])) as E by (rewrite nlen_app; reflexivity). rewrite E.
  unfold opaque_ser, opaque_pre. rewrite <- !app_assoc.
  rewrite slice_from_o_some by (rewrite !nlen_app; lia).
  rewrite (app_assoc sch [58]). rewrite nskipn_app_len. cbn [bindo]. f_equal.
  destruct P as [|c r].
  - cbn [app]. unfold qf_text. destruct q; destruct f; reflexivity.
  - cbn [app]. cbn [starts_with] in *. rewrite HP. reflexivity.
Qed.

Lemma opaque_url_cbb sch P q f : opaque_ok sch P q f -> cannot_be_a_base (opaque_url sch P q f) = Some true.
Proof. intros K. exact (opaque_cbb_gen sch P q f (ok_Ph _ _ _ _ K)). Qed.

(* the clauses of wf_b that every canonical form shares *)
Lemma wf_scheme_canon sch X u : scheme_canon sch = true -> ser u = sch ++ 58 :: X -> scheme_end u = nlen sch ->
  wf_scheme u = true.
Proof.
  unfold scheme_canon, wf_scheme. intros Hs -> ->. apply andb_true_iff in Hs. destruct Hs as [Hhead Hall].
  rewrite nfirstn_app_len, byte_eqb_app, (forallb_impl _ _ sch scheme_out_char_scheme_char Hall).
  destruct sch as [|c s]; [discriminate|]. cbn [app]. unfold is_alpha. rewrite Hhead, orb_true_r, nlen_cons.
  replace (1 <=? 1 + nlen s) with true by lia. reflexivity.
Qed.

(* query / fragment clauses: front text A, path P without '?' / '#', query clean for the set of any scheme type *)
Lemma wf_qf_generic_st st (A P : list N) q f u :
  ser u = (A ++ P) ++ qf_text q f -> path_start u = nlen A ->
  query_start u = qf_qs (nlen (A ++ P)) q -> fragment_start u = qf_fs (nlen (A ++ P)) q f ->
  forallb (fun c => negb ((c =? 63) || (c =? 35))) P = true -> opt_clean (query_set st) q ->
  wf_query_fragment u = true.
Proof.
  intros Es Ep Eq Ef HP Hq. unfold wf_query_fragment. rewrite Es, Ep, Eq, Ef.
  assert (forall Z, nfirstn (nlen (A ++ P) - nlen A) (nskipn (nlen A) ((A ++ P) ++ Z)) = P) as EP.
  { intros Z. rewrite nlen_app. replace (nlen A + nlen P - nlen A) with (nlen P) by lia.
    rewrite <- !app_assoc. rewrite nskipn_app_len. apply nfirstn_app_len. }
  assert (forall x, clean (query_set st) x = true -> forallb (fun c => negb (c =? 35)) x = true) as Hx35.
  { intros x Hc. apply (forallb_impl not_tnl_hash); [|exact (clean_forallb _ _ x (kept_query_set_sat st) Hc)].
    intros c Hcc. unfold not_tnl_hash in Hcc. apply andb_true_iff in Hcc. tauto. }
  destruct q as [x|]; destruct f as [y|];
    cbn [qf_qs qf_fs qf_text qf_qtext qf_ftext opt_clean] in *; unfold qf_text; cbn [qf_qtext qf_ftext].
  - rewrite EP, HP. cbn [app]. rewrite byte_eqb_app.
    replace ((A ++ P) ++ 63 :: x ++ 35 :: y) with (((A ++ P) ++ 63 :: x) ++ 35 :: y) by (rewrite <- !app_assoc; reflexivity).
    rewrite <- nlen_app, byte_eqb_app. rewrite (nlen_app (A ++ P)), nlen_cons.
    replace (nlen (A ++ P) + (1 + nlen x) - (nlen (A ++ P) + 1)) with (nlen x) by lia.
    rewrite <- app_assoc, nskipn_app_add. cbn [app]. change (nskipn 1 (63 :: x ++ 35 :: y)) with (x ++ 35 :: y).
    rewrite nfirstn_app_len, (Hx35 x Hq). rewrite nlen_app.
    replace (nlen A <=? nlen A + nlen P) with true by lia.
    replace (nlen A <=? nlen A + nlen P + (1 + nlen x)) with true by lia.
    replace (nlen A + nlen P <? nlen A + nlen P + (1 + nlen x)) with true by lia. reflexivity.
  - rewrite app_nil_r, EP, HP, byte_eqb_app, nskipn_app_add. change (nskipn 1 (63 :: x)) with x. rewrite (Hx35 x Hq).
    rewrite nlen_app. replace (nlen A <=? nlen A + nlen P) with true by lia. reflexivity.
  - cbn [app]. rewrite N.add_0_r, EP, HP, byte_eqb_app.
    rewrite nlen_app. replace (nlen A <=? nlen A + nlen P) with true by lia. reflexivity.
  - cbn [app]. rewrite app_nil_r, nlen_app. replace (nlen A + nlen P - nlen A) with (nlen P) by lia.
    rewrite nskipn_app_len, nfirstn_all by lia. rewrite HP. reflexivity.
Qed.

(* L1 for the class, structural part: the canonical form satisfies wf_b *)
Lemma opaque_url_wf sch P q f : opaque_ok sch P q f -> wf_b (opaque_url sch P q f) = true.
Proof.
  intros K. destruct K. set (A := sch ++ [58]).
  assert (nlen A = nlen sch + 1) as EA by (unfold A; rewrite nlen_app; reflexivity).
  assert (starts_with [47] (P ++ qf_text q f) = false) as Hno.
  { destruct P as [|c r]; [|cbn [app starts_with] in *; rewrite ok_Ph0; reflexivity].
    cbn [app]. unfold qf_text. destruct q; destruct f; reflexivity. }
  unfold wf_b. apply andb_true_iff. split; [apply andb_true_iff; split|].
  - apply (wf_scheme_canon sch (P ++ qf_text q f)); [exact ok_sch0 | | reflexivity].
    unfold opaque_url, opaque_ser, opaque_pre. cbn [ser]. rewrite <- !app_assoc. reflexivity.
  - (* no authority *)
    assert (has_authority_b (opaque_url sch P q f) = false) as Hna.
    { unfold has_authority_b, opaque_url. cbn [ser scheme_end]. unfold opaque_ser, opaque_pre.
      rewrite <- !app_assoc. rewrite nskipn_app_len. unfold s_css. cbn [app starts_with].
      replace (58 =? 58) with true by reflexivity. cbn [andb].
      apply starts_with_ss_of_s. exact Hno. }
    rewrite Hna. unfold wf_no_authority, opaque_url.
    cbn [ser scheme_end username_end host_start host_end hosti port path_start]. fold A.
    unfold opaque_ser, opaque_pre. fold A. rewrite !nlen_app.
    cbn [hi_eqb]. replace (nlen A =? nlen sch + 1) with true by lia.
    replace (nlen A <=? nlen A + nlen P + nlen (qf_text q f)) with true by lia. reflexivity.
  - apply (wf_qf_generic_st STNotSpecial A P q f); try reflexivity; [|exact ok_q0].
    apply (forallb_impl not_tnl_qh); [|exact ok_Pq0]. intros c Hc. unfold not_tnl_qh, is_qh in Hc.
    apply andb_true_iff in Hc. tauto.
Qed.

Lemma opaque_ser_ascii sch P q f : opaque_ok sch P q f -> ascii (opaque_ser sch P q f).
Proof.
  intros K. destruct K. unfold opaque_ser, opaque_pre.
  apply ascii_app. split; [|exact (qf_text_ascii T_QUERY q f ok_q0 ok_f0)].
  apply ascii_app. split; [|exact (clean_ascii T_CONTROLS P ok_P0)].
  apply ascii_app. split; [|constructor; [reflexivity | constructor]].
  unfold scheme_canon in ok_sch0. apply andb_true_iff in ok_sch0. destruct ok_sch0 as [_ Hf].
  apply Forall_forall. intros c Hc. rewrite forallb_forall in Hf. specialize (Hf c Hc).
  unfold scheme_out_char, is_lower, is_digit, is_ascii in *. lia.
Qed.

Section Opaque.
Variable dbg : bool.
Variable hp hpo : list N -> result host.
Variable hd : host -> list N.
Variable ovr : option (list N -> list N).

(* evaluation of the non-special branch when the remaining input does not start with '/' *)
Lemma pns_opaque_eval sch l : usv_list l -> inp_split_prefix_char 47 l = None ->
  parse_non_special dbg hp hpo hd ovr CUrlParser STNotSpecial (nlen sch) (sch ++ [58]) l
  = (ps <~ to_u32 (nlen (sch ++ [58])) ;;
     ' (s2, qs, fs) <~ parse_query_and_fragment ovr CUrlParser STNotSpecial (nlen sch)
                          (opaque_pre sch (opaque_of l)) (cbb_rest l) ;;
     POk (mkUrl s2 (nlen sch) ps ps ps HI_None None ps qs fs)).
Proof.
  intros Hu H47. unfold parse_non_special.
  assert (inp_split_prefix_str s_ss l = None) as Hss.
  { unfold inp_split_prefix_char in H47. unfold s_ss. cbn [inp_split_prefix_str].
    destruct (inp_next l) as [[d r]|]; [|reflexivity]. destruct (d =? 47); [discriminate | reflexivity]. }
  rewrite Hss, H47.
  destruct (to_u32 (nlen (sch ++ [58]))) as [ps| |] eqn:Eu; cbn [pbind]; try reflexivity.
  apply to_u32_inv in Eu. destruct Eu as [-> Hb].
  rewrite cbb_spec by exact Hu. fold (opaque_of l). cbn [pbind].
  unfold with_query_and_fragment.
  assert (nlen (sch ++ [58]) =? nlen sch + 1 = true) as E1.
  { rewrite nlen_app. unfold nlen. cbn [length]. lia. }
  rewrite E1. rewrite nskipn_app_len.
  pose proof (opaque_of_head l Hu H47) as Hh.
  rewrite (starts_with_ss_of_s _ Hh).
  assert (starts_with s_css (nskipn (nlen sch) ((sch ++ [58]) ++ opaque_of l)) = false) as E2.
  { rewrite <- !app_assoc. rewrite nskipn_app_len. unfold s_css. cbn [app starts_with].
    replace (58 =? 58) with true by reflexivity. cbn [andb].
    apply (starts_with_ss_of_s _ Hh). }
  rewrite E2. cbn [negb passert pbind]. reflexivity.
Qed.

(* L1 for the class: the result has the canonical form *)
Theorem parse_opaque_out input sch rem u : usv_list input ->
  parse_scheme CUrlParser (input_new_trim_c0 input) = Some (sch, rem) ->
  scheme_type_of sch = STNotSpecial -> inp_split_prefix_char 47 rem = None ->
  parse_url dbg hp hpo hd ovr None input = POk u ->
  exists P q f, opaque_ok sch P q f /\ u = opaque_url sch P q f.
Proof.
  intros Hu Hs Hns H47. unfold parse_url. rewrite Hs. unfold parse_with_scheme. rewrite Hns.
  destruct (to_u32 (nlen sch)) as [se| |] eqn:Eu; cbn [pbind]; try discriminate.
  apply to_u32_inv in Eu. destruct Eu as [-> Hb0].
  destruct (parse_scheme_suffix _ _ _ _ Hs) as [pre Hpre].
  pose proof (scheme_rem_usv input sch rem Hu Hs) as Hur.
  rewrite pns_opaque_eval by assumption.
  destruct (to_u32 (nlen (sch ++ [58]))) as [ps| |] eqn:Eu; cbn [pbind]; try discriminate.
  apply to_u32_inv in Eu. destruct Eu as [-> Hb1].
  destruct (parse_query_and_fragment ovr CUrlParser STNotSpecial (nlen sch) (opaque_pre sch (opaque_of rem)) (cbb_rest rem))
    as [[[s2 qs] fs]| |] eqn:Eq; cbn [pbind]; try discriminate.
  intros H. inversion H; subst u. clear H.
  apply pqf_out in Eq; [|apply usv_cbb_rest; exact Hur|].
  2:{ unfold opaque_pre. rewrite <- !app_assoc. rewrite nfirstn_app_len. apply query_enc_nonspecial. exact Hns. }
  destruct Eq as (-> & -> & -> & Bq & Bf & Cq & Cf).
  exists (opaque_of rem), (pqf_q STNotSpecial (cbb_rest rem)), (pqf_f (cbb_rest rem)).
  split; [|reflexivity].
  constructor; try assumption.
  - exact (parse_scheme_out _ _ _ Hs).
  - apply opaque_of_clean. exact Hur.
  - apply opaque_of_no_qh. exact Hur.
  - apply opaque_of_head; assumption.
  - intros Hq Hf. apply opaque_of_last; [exact Hur | |].
    + pose proof (cbb_rest_head rem) as Hh. unfold pqf_q, pqf_f in Hq, Hf.
      destruct (cbb_rest rem) as [|c r]; [reflexivity|]. destruct Hh as [Hh1 Hh2].
      rewrite inp_next_cons in Hq, Hf by exact Hh2. exfalso.
      unfold is_qh in Hh1. destruct (c =? 63); [discriminate|]. destruct (c =? 35); discriminate.
    + pose proof (trim_c0_edge_ok input) as [_ He]. rewrite Hpre in He.
      exact (first_ok_rev_suffix _ _ He).
Qed.

(* L3 for the class *)
Lemma opaque_ser_edge_ok sch P q f : opaque_ok sch P q f -> edge_ok (opaque_ser sch P q f).
Proof.
  intros K. destruct K. split.
  - unfold scheme_canon in ok_sch0. destruct sch as [|c s]; [discriminate|].
    apply andb_true_iff in ok_sch0. destruct ok_sch0 as [Hl _].
    unfold opaque_ser, opaque_pre. cbn [app first_ok]. unfold is_lower, is_c0_or_space in *. lia.
  - unfold opaque_ser, qf_text.
    destruct f as [y|].
    { rewrite app_assoc. apply first_ok_rev_app; [discriminate|].
      cbn [qf_ftext]. constructor; [reflexivity|]. apply forallb_above.
      exact (clean_forallb _ _ y kept_FRAGMENT_above ok_f0). }
    cbn [qf_ftext]. rewrite app_nil_r.
    destruct q as [x|].
    { apply first_ok_rev_app; [discriminate|].
      cbn [qf_qtext]. constructor; [reflexivity|]. apply forallb_above.
      exact (clean_forallb _ _ x kept_QUERY_above ok_q0). }
    cbn [qf_qtext]. rewrite app_nil_r. unfold opaque_pre.
    specialize (ok_last0 eq_refl eq_refl).
    rewrite rev_app_distr. destruct (rev P) as [|z w] eqn:E.
    + cbn [app]. rewrite rev_app_distr. cbn. reflexivity.
    + cbn [app first_ok]. exact ok_last0.
Qed.

Theorem reparse_opaque_form sch P q f : opaque_ok sch P q f ->
  parse_url dbg hp hpo hd ovr None (opaque_ser sch P q f) = POk (opaque_url sch P q f).
Proof.
  intros K. pose proof (opaque_ser_edge_ok _ _ _ _ K) as He. destruct K.
  unfold parse_url. rewrite trim_c0_id by exact He.
  unfold opaque_ser, opaque_pre. rewrite <- !app_assoc. cbn [app].
  rewrite parse_scheme_canon by exact ok_sch0.
  unfold parse_with_scheme. rewrite ok_ns0.
  assert (nlen sch <= U32_MAX_P) as Hb0 by (rewrite nlen_app in ok_b2; lia).
  rewrite to_u32_ok by exact Hb0. cbn [pbind].
  pose proof (qf_text_qh q f) as Hqf.
  assert (usv_list (P ++ qf_text q f)) as Hu
    by (apply usv_app; split; [exact (clean_usv _ P ok_P0) | exact (ascii_usv _ (qf_text_ascii T_QUERY q f ok_q0 ok_f0))]).
  assert (inp_split_prefix_char 47 (P ++ qf_text q f) = None) as H47.
  { unfold inp_split_prefix_char. destruct P as [|c r].
    - cbn [app]. destruct (qf_text q f) as [|c r]; [reflexivity|]. destruct Hqf as [Hq Ht].
      rewrite inp_next_cons by exact Ht. unfold is_qh in Hq. replace (c =? 47) with false by lia. reflexivity.
    - cbn [forallb] in ok_Pq0. apply andb_true_iff in ok_Pq0. destruct ok_Pq0 as [Hc _].
      unfold not_tnl_qh, not_tnl in Hc.
      cbn [app]. rewrite inp_next_cons by (destruct (is_tnl c); [discriminate | reflexivity]).
      cbn [starts_with] in ok_Ph0. rewrite andb_true_r in ok_Ph0. rewrite N.eqb_sym, ok_Ph0. reflexivity. }
  rewrite pns_opaque_eval by assumption.
  rewrite to_u32_ok by exact ok_b2. cbn [pbind].
  destruct (opaque_of_canon P (qf_text q f) ok_P0 ok_Pq0 Hqf) as [C1 C2]. rewrite C1, C2.
  rewrite (pqf_canon ovr STNotSpecial (nlen sch) (opaque_pre sch P) q f); try assumption.
  - cbn [pbind]. unfold opaque_url, opaque_ser, opaque_pre. rewrite <- !app_assoc. reflexivity.
  - unfold opaque_pre. rewrite <- !app_assoc. rewrite nfirstn_app_len. apply query_enc_nonspecial. exact ok_ns0.
Qed.

(* composition: a parse result of the class is a fixpoint of serialize-then-parse *)
Theorem reparse_opaque_input input sch rem u : usv_list input ->
  parse_scheme CUrlParser (input_new_trim_c0 input) = Some (sch, rem) ->
  scheme_type_of sch = STNotSpecial -> inp_split_prefix_char 47 rem = None ->
  parse_url dbg hp hpo hd ovr None input = POk u ->
  parse_url dbg hp hpo hd ovr None (ser u) = POk u.
Proof.
  intros Hu Hs Hns H47 Hp.
  destruct (parse_opaque_out input sch rem u Hu Hs Hns H47 Hp) as (P & q & f & K & ->).
  exact (reparse_opaque_form sch P q f K).
Qed.

Theorem opaque_result_ascii input sch rem u : usv_list input ->
  parse_scheme CUrlParser (input_new_trim_c0 input) = Some (sch, rem) ->
  scheme_type_of sch = STNotSpecial -> inp_split_prefix_char 47 rem = None ->
  parse_url dbg hp hpo hd ovr None input = POk u -> ascii (ser u).
Proof.
  intros Hu Hs Hns H47 Hp.
  destruct (parse_opaque_out input sch rem u Hu Hs Hns H47 Hp) as (P & q & f & K & ->).
  exact (opaque_ser_ascii sch P q f K).
Qed.

End Opaque.
