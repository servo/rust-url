(* Proofs/C07_Corr.v - the abstraction relation of the C07 equivalence, at the level of the accessors:
   `corr u su` ties a well-formed model record to a URL record of the Standard component by component
   (scheme, username, password, host text, port, path, query, fragment) together with the three layout
   facts the serialization depends on ("//" present, '@' present, "/." marker present) and the
   opaque-path flag.  Related records show the same ten API strings (corr_api); the model's
   "cannot have a username/password/port" test is the Standard's (corr_cannot_have). *)
From RU Require Import Base.Prelude Base.Utf8 Model.AsciiSet Gen.Tables Model.PercentEncoding
  Model.HostT Model.UrlRecord Model.Parser Model.Setters Model.WF Model.KnownC01 Model.KnownC07 Spec.Whatwg
  Proofs.ListN Proofs.C03_WF Proofs.C06_List Proofs.C06_WFI Proofs.C06_Tail Proofs.C06_Suffix Proofs.C06_Front
  Proofs.C06_Steps Proofs.C06_FragQuery Proofs.C06_Port
  Proofs.C02_Enc Proofs.C01_EqApi Proofs.C07_Defs.
From RU Require Import Proofs.Decimal.

(* small facts about a well-formed record *)
Lemma auth_by_offsets u : wf_b u = true -> has_authority_b u = (scheme_end u + 3 <=? username_end u).
Proof.
  intros W. destruct (has_authority_b u) eqn:Ha.
  - pose proof (af_ue (wf_auth_facts u W Ha)). lia.
  - pose proof (nf_ue (wf_noauth_facts u W Ha)). lia.
Qed.

Lemma same_main_auth u u' : wf_b u = true -> wf_b u' = true -> same_main u u' ->
  has_authority_b u' = has_authority_b u.
Proof.
  intros W W' (A & B & _). rewrite (auth_by_offsets u W), (auth_by_offsets u' W'), A, B. reflexivity.
Qed.

(* the first byte of the path *)
Lemma path_first_byte u pth : wf_b u = true -> path u = Some pth ->
  byte_eqb (ser u) (path_start u) 47 = starts_with [47] pth.
Proof.
  intros W Hp. rewrite (path_eval u W) in Hp. injection Hp as Hp. subst pth.
  destruct (wf_ps_le_path_end u W) as [H1 H2].
  assert (pidx u AfterPath = path_end u) as Epe
    by (unfold path_end; cbn [pidx]; destruct (query_start u), (fragment_start u); reflexivity).
  cbn [pidx] in Epe. rewrite Epe.
  unfold piece, byte_eqb. rewrite <- (N.add_0_r (path_start u)) at 1. rewrite <- nnth_nskipn.
  destruct (N.eq_dec (path_start u) (path_end u)) as [E|E].
  - rewrite <- E, N.sub_diag. change (nfirstn 0 (nskipn (path_start u) (ser u))) with (@nil N).
    cbn [starts_with].
    (* the byte at the end of the path is '?', '#' or nothing *)
    assert (nnth (ser u) (path_end u) = None \/ nnth (ser u) (path_end u) = Some 63
            \/ nnth (ser u) (path_end u) = Some 35) as Hb.
    { pose proof (wf_qf_facts u W) as QF. pose proof (qf_q QF) as Q1. pose proof (qf_f QF) as Q2.
      unfold path_end. destruct (query_start u) as [q|].
      - destruct Q1 as (_ & Q & _). right. left. apply byte_eqb_nnth. exact Q.
      - destruct (fragment_start u) as [f|].
        + destruct Q2 as (_ & Q & _). right. right. apply byte_eqb_nnth. exact Q.
        + left. unfold nnth. apply nth_error_None. unfold nlen. lia. }
    rewrite <- E in Hb. rewrite nnth_nskipn, N.add_0_r.
    destruct Hb as [K|[K|K]]; rewrite K; reflexivity.
  - destruct (nskipn (path_start u) (ser u)) as [|c r] eqn:Es.
    + exfalso. assert (nlen (nskipn (path_start u) (ser u)) = 0) as K by (rewrite Es; reflexivity).
      rewrite nlen_nskipn in K. lia.
    + replace (path_end u - path_start u) with (1 + (path_end u - path_start u - 1)) by lia.
      unfold nfirstn. rewrite N2Nat.inj_add. change (N.to_nat 1) with 1%nat. cbn [Nat.add firstn].
      cbn [nnth N.to_nat nth_error starts_with]. rewrite andb_true_r, N.eqb_sym. reflexivity.
Qed.

(* an opaque path: no authority, no marker, and the path does not start with '/' *)
Lemma is_opaque_by_path u pth : wf_b u = true -> path u = Some pth ->
  is_opaque_b u = negb (has_authority_b u) && (path_start u =? scheme_end u + 1) && negb (starts_with [47] pth).
Proof.
  intros W Hp. rewrite <- (path_first_byte u pth W Hp). unfold is_opaque_b.
  destruct (has_authority_b u) eqn:Ha.
  - unfold has_authority_b in Ha. apply css_bytes in Ha. destruct Ha as (_ & B & _).
    apply byte_eqb_true_iff in B. rewrite B. reflexivity.
  - pose proof (wf_noauth_facts u W Ha) as F. destruct (nf_ps F) as [E|(E & B & _)].
    + rewrite E, N.eqb_refl. reflexivity.
    + rewrite B. replace (path_start u =? scheme_end u + 1) with false by lia. reflexivity.
Qed.

Lemma starts_with_rstrip_47 p : starts_with [47] (rstrip (fun c => c =? 32) p) = starts_with [47] p.
Proof.
  destruct (rstrip_prefix (fun c => c =? 32) p) as (k & K1 & K2 & K3). rewrite K2.
  destruct p as [|c r]; [unfold nfirstn; rewrite firstn_nil; reflexivity|].
  destruct (N.eq_dec k 0) as [->|Hk].
  - change (nfirstn 0 (c :: r)) with (@nil N). cbn [starts_with]. rewrite andb_true_r.
    destruct (47 =? c) eqn:E; [|reflexivity]. apply N.eqb_eq in E. subst c.
    assert (0 < 0) as Hk by (apply (K3 0 47); reflexivity). lia.
  - replace k with (1 + (k - 1)) by lia. unfold nfirstn. rewrite N2Nat.inj_add. change (N.to_nat 1) with 1%nat.
    cbn [Nat.add firstn starts_with]. reflexivity.
Qed.

Lemma has_some_query u dbg q : wf_b u = true -> query dbg u = Some q -> has_some (query_start u) = opt_is_some q.
Proof.
  intros W H. rewrite (query_eval dbg u W) in H. injection H as H. subst q. destruct (query_start u); reflexivity.
Qed.

Lemma has_some_fragment u dbg f : wf_b u = true -> fragment dbg u = Some f -> has_some (fragment_start u) = opt_is_some f.
Proof.
  intros W H. rewrite (fragment_eval dbg u W) in H. injection H as H. subst f. destruct (fragment_start u); reflexivity.
Qed.

Definition pw_opt (p : list N) : option (list N) := match p with [] => None | _ => Some p end.

(* the serializer of the Standard writes "/." in front of the path *)
Definition spec_marker (su : spec_url) : bool :=
  match su_host su with
  | Some _ => false
  | None => match su_path su with SPList (p0 :: _ :: _) => list_eqb p0 [] | _ => false end
  end.

Definition host_text (hs : option (option (list N))) : option (list N) := option_map optl hs.

(* a record without credentials has the empty username *)
Lemma noauth_username dbg u un : wf_b u = true -> username_end u <= scheme_end u + 3 ->
  username dbg u = Some un -> un = [].
Proof.
  intros W L Hun. rewrite (username_eval dbg u W) in Hun. injection Hun as Hun. subst un.
  cbn [pidx]. unfold piece. destruct (has_authority_b u) eqn:Ha.
  - replace (username_end u - (scheme_end u + 3)) with 0 by lia. reflexivity.
  - rewrite (nf_ue (wf_noauth_facts u W Ha)), N.sub_diag. reflexivity.
Qed.

Lemma dec_digits_ne fuel : forall n acc, acc <> [] -> dec_digits fuel n acc <> [].
Proof.
  induction fuel as [|f IH]; intros n acc H; cbn [dec_digits]; [exact H|].
  destruct (n <? 10); [discriminate | apply IH; discriminate].
Qed.

Lemma serialize_integer_ne p : serialize_integer p <> [].
Proof. unfold serialize_integer. cbn [dec_digits]. destruct (p <? 10); [discriminate | apply dec_digits_ne; discriminate]. Qed.

Section Corr.
Variable dbg : bool.
Variable shs : spec_host -> list N.

Record corr (u : url) (su : spec_url) : Prop := mk_corr {
  co_wf : wf_b u = true;
  co_ht : host_text_ok u;
  co_scheme : scheme u = Some (su_scheme su);
  co_user : username dbg u = Some (su_username su);
  co_pass : password dbg u = Some (pw_opt (su_password su));
  co_host : host_text (host_str u) = Some (serialize_host_opt shs (su_host su));
  co_hh : has_host u = negb (host_is_null (su_host su) || host_is_empty (su_host su));
  co_auth : has_authority_b u = opt_is_some (su_host su);
  co_at : has_authority_b u && negb (username_end u =? host_start u) = includes_credentials su;
  co_port : port u = su_port su;
  co_path : path u = Some (serialize_path su);
  co_query : query dbg u = Some (su_query su);
  co_frag : fragment dbg u = Some (su_fragment su);
  co_marker : negb (has_authority_b u) && (path_start u =? scheme_end u + 3) = spec_marker su;
  co_opaque : is_opaque_b u = has_opaque_path su;
  (* the stored username contains no byte of the userinfo percent-encode set (Url::set_username
     compares the stored text with the raw argument before encoding it) *)
  co_uclean : clean T_USERINFO (su_username su) = true
}.

Lemma optl_pw_opt p : optl (pw_opt p) = p.
Proof. destruct p; reflexivity. Qed.

Lemma list_eqb_nil_r (p : list N) : list_eqb p [] = match p with [] => true | _ => false end.
Proof. destruct p; reflexivity. Qed.

(* the serialization of a related record is the Standard's serialization *)
Lemma corr_href u su : corr u su -> ser u = serialize_url shs su false.
Proof.
  intros [W HT Es Eun Epw Eh Ehh Ea Eat Epo Ept Eq Ef Em Eo Ec].
  destruct (accessors_reconcatenate dbg u W)
    as (sch & un & pw & hs & pth & q & f & Es1 & Eun1 & Epw1 & Ehs1 & Ept1 & Eq1 & Ef1 & Eser & Hh1 & Hh0).
  rewrite Es in Es1. rewrite Eun in Eun1. rewrite Epw in Epw1. rewrite Ept in Ept1. rewrite Eq in Eq1. rewrite Ef in Ef1.
  injection Es1 as <-. injection Eun1 as <-. injection Epw1 as <-. injection Ept1 as <-. injection Eq1 as <-. injection Ef1 as <-.
  assert (piece u (host_start u) (host_end u) = serialize_host_opt shs (su_host su)) as Ehp.
  { rewrite Ehs1 in Eh. cbn [host_text option_map] in Eh. injection Eh as Eh. rewrite <- Eh.
    destruct (has_host u) eqn:Hh; [rewrite (Hh1 eq_refl); reflexivity|].
    rewrite (Hh0 eq_refl). rewrite (host_str_eval u W), Hh in Ehs1. injection Ehs1 as <-. reflexivity. }
  rewrite Eser, Ehp, Eat, Em, Epo. unfold serialize_url, spec_marker.
  destruct (su_host su) as [h|] eqn:Esh.
  - (* a host: "//", credentials, host, port *)
    rewrite Ea. cbn [opt_is_some serialize_host_opt]. unfold s_css.
    assert (match su_port su with Some p => 58 :: decimal p | None => [] end
            = match su_port su with Some p => 58 :: serialize_integer p | None => [] end) as Ep.
    { destruct (su_port su) as [p|] eqn:Esp; [|reflexivity]. f_equal. apply decimal_serialize.
      pose proof (af_port (wf_auth_facts u W Ea)) as P. rewrite Epo in P. tauto. }
    rewrite Ep.
    unfold includes_credentials in *.
    destruct (su_username su) as [|a ra] eqn:Eu; destruct (su_password su) as [|b rb] eqn:Epw2;
      cbn [pw_opt list_eqb negb orb app]; repeat (rewrite <- ?app_assoc; cbn [app]); reflexivity.
  - (* no host: nothing between ':' and the path but the marker *)
    pose proof (wf_noauth_facts u W Ea) as F. rewrite Ea in *. cbn [opt_is_some] in *.
    assert (su_username su = []) as Eu.
    { rewrite (username_eval dbg u W) in Eun. injection Eun as Eun. rewrite <- Eun. cbn [pidx]. rewrite Ea.
      rewrite (nf_ue F). apply piece_empty. }
    assert (pw_opt (su_password su) = None) as Ep.
    { rewrite (password_piece dbg u W) in Epw. injection Epw as Epw. rewrite <- Epw.
      unfold has_password_b. rewrite Ea. reflexivity. }
    rewrite Eu, Ep. cbn [andb serialize_host_opt app].
    rewrite <- Epo, (nf_port F). cbn [app].
    cbn [andb] in Eat. rewrite <- Eat.
    destruct (su_path su) as [p|[|p0 [|p1 pr]]]; reflexivity.
Qed.

Lemma get_search_trim q : q_trim (qtext q) = match q with None | Some [] => [] | Some x => 63 :: x end.
Proof. destruct q as [[|a r]|]; reflexivity. Qed.
Lemma get_hash_trim f : q_trim (ftext f) = match f with None | Some [] => [] | Some x => 35 :: x end.
Proof. destruct f as [[|a r]|]; reflexivity. Qed.

(* related records show the same ten API strings *)
Theorem corr_api u su : corr u su -> model_api dbg u = Some (spec_api_list shs su).
Proof.
  intros C. pose proof (corr_href u su C) as Ehref.
  destruct C as [W HT Es Eun Epw Eh Ehh Ea Eat Epo Ept Eq Ef Em Eo Ec].
  change (model_api dbg u) with (api_of_model dbg u).
  destruct (host_str u) as [hs|] eqn:Ehs; [|discriminate Eh]. cbn [host_text option_map] in Eh. injection Eh as Eh.
  rewrite (api_by_accessors dbg u W _ _ _ _ _ _ _ Es Eun Epw Ehs Ept Eq Ef). f_equal.
  unfold api_of_parts, spec_api_list.
  assert (match su_port su with Some p => p <= 65535 | None => True end) as Hp.
  { destruct (su_port su) as [p|] eqn:Esp; [|exact I].
    destruct (has_authority_b u) eqn:Ha.
    - pose proof (af_port (wf_auth_facts u W Ha)) as P. rewrite Epo in P. tauto.
    - pose proof (nf_port (wf_noauth_facts u W Ha)) as P. congruence. }
  apply list10_eq.
  - exact Ehref.
  - reflexivity.
  - reflexivity.
  - apply optl_pw_opt.
  - unfold get_host. rewrite Eh, Epo. destruct (su_host su) as [h|] eqn:Esh.
    + cbn [serialize_host_opt]. destruct (su_port su) as [p|]; cbn [port_suffix]; [|apply app_nil_r].
      rewrite (decimal_serialize p Hp). reflexivity.
    + cbn [serialize_host_opt app]. cbn [opt_is_some] in Ea.
      rewrite <- Epo, (nf_port (wf_noauth_facts u W Ea)). reflexivity.
  - exact Eh.
  - unfold get_port. rewrite Epo. destruct (su_port su) as [p|]; cbn [port_text]; [|reflexivity].
    apply (decimal_serialize p Hp).
  - reflexivity.
  - apply get_search_trim.
  - apply get_hash_trim.
Qed.

(* "cannot have a username/password/port": the code's test is the Standard's on related records *)
Theorem corr_cannot_have u su : corr u su ->
  cannot_have_credentials_or_port u = Some (cannot_have_username_password_port su).
Proof.
  intros [W HT Es Eun Epw Eh Ehh Ea Eat Epo Ept Eq Ef Em Eo Ec].
  unfold cannot_have_credentials_or_port, cannot_have_username_password_port.
  destruct (has_host u) eqn:Hh; cbn [negb].
  - symmetry in Ehh. apply negb_true_iff in Ehh. rewrite Ehh. cbn [orb].
    rewrite Es. destruct (HT Hh) as (T1 & _).
    pose proof (has_host_authority u W Hh) as Ha. pose proof (wf_auth_facts u W Ha) as F.
    pose proof (af_he F); pose proof (af_ps F); pose proof (af_len F).
    unfold host_of. destruct (hosti u) eqn:Ehi; try discriminate Hh; cbn [bindo]; try reflexivity.
    unfold u_slice. rewrite slice_o_some by lia. cbn [bindo].
    destruct (nfirstn (host_end u - host_start u) (nskipn (host_start u) (ser u))) as [|c r] eqn:El; [|reflexivity].
    exfalso. assert (nlen (nfirstn (host_end u - host_start u) (nskipn (host_start u) (ser u))) = 0) as K
      by (rewrite El; reflexivity).
    rewrite nlen_nfirstn in K by (rewrite nlen_nskipn; lia). lia.
  - symmetry in Ehh. apply negb_false_iff in Ehh. rewrite Ehh. reflexivity.
Qed.

End Corr.
