(* Proofs/C04_CostRel.v - cost of Url::make_relative (url/src/lib.rs:515-604; model: Model/MakeRelative.v).
   Cost semantics of Model/Cost.v: rfind is a reverse search (rcost), a `split('/')` iterator examines every byte of its
   text once (size of the segment list = bytes + one step per segment), slice equality compares the lengths first and
   then at most the common length, push_str of x = nlen x, push / is_empty / peek of a cached item = 1.  As in
   Proofs/C04_CostMime.v the step counts follow the data flow of the model functions.
     mr_path_k pb pt           - the path part (two extract_path_filename, the two split iterators, the skip loop, the ".."
                                 loop, the copy loop, the filename rule): at most 9 |pb| + 6 |pt| + 26
     make_relative_k dbg b t   - the whole method: at most 12 |b| + 8 |t| + 35 in the lengths of the two serializations
   No quadratic term: every loop consumes its iterator. *)
From RU Require Import Base.Prelude Model.HostT Model.UrlRecord Model.Cost Model.MakeRelative Proofs.ListN.
From RU Require Import Proofs.C04_CostMime Proofs.C04_CostPathUp.

(* ---------------------------------------------------------------- lengths *)
Lemma nskipn_len i (s : list N) : nlen (nskipn i s) <= nlen s.
Proof. unfold nlen, nskipn. rewrite skipn_length. lia. Qed.
Lemma slice_o_le l a b s : slice_o l a b = Some s -> nlen s <= nlen l.
Proof. intros H. apply slice_o_len in H. lia. Qed.
Lemma slice_from_o_len l a s : slice_from_o l a = Some s -> nlen s <= nlen l.
Proof. unfold slice_from_o. destruct (a <=? nlen l); [|discriminate]. intros H. inversion H; subst. apply nskipn_len. Qed.
Lemma slice_to_o_len l b s : slice_to_o l b = Some s -> nlen s <= nlen l.
Proof. unfold slice_to_o. destruct (b <=? nlen l); [|discriminate]. intros H. inversion H; subst. apply nlen_nfirstn_le2. Qed.

Lemma size_cons p ps : size (p :: ps) = nlen p + 1 + size ps.
Proof. reflexivity. Qed.

Lemma size_split_on_aux sep l : forall cur, size (split_on_aux sep cur l) = nlen cur + nlen l + 1.
Proof.
  induction l as [|x r IH]; intros cur; cbn [split_on_aux].
  - rewrite size_cons. change (size []) with 0. unfold nlen at 1. rewrite rev_length. fold (nlen cur). cbn [nlen length N.of_nat]. lia.
  - rewrite nlen_cons. destruct (x =? sep).
    + rewrite size_cons, IH. unfold nlen at 1. rewrite rev_length. fold (nlen cur). change (nlen []) with 0. lia.
    + rewrite IH, nlen_cons. lia.
Qed.
Lemma size_split_on sep l : size (split_on sep l) = nlen l + 1.
Proof. unfold split_on. rewrite size_split_on_aux. change (nlen []) with 0. lia. Qed.

(* ---------------------------------------------------------------- the loops *)
Definition eq_k (x y : list N) : N := 1 + (if nlen x =? nlen y then nlen x else 0).

Fixpoint skip_common_k (a b : list (list N)) : N :=
  match a, b with
  | x :: a', y :: b' => 2 + eq_k x y + (if list_eqb x y then skip_common_k a' b' else 0)
  | _, _ => 2
  end.
Lemma skip_common_k_le a : forall b, skip_common_k a b <= 3 * size a + 2.
Proof.
  induction a as [|x a IH]; intros b; [destruct b; cbn; lia|]. destruct b as [|y b]; cbn [skip_common_k]; rewrite size_cons.
  - lia.
  - unfold eq_k. specialize (IH b). destruct (nlen x =? nlen y); destruct (list_eqb x y); lia.
Qed.
Lemma skip_common_size a : forall b, size (fst (skip_common a b)) <= size a /\ size (snd (skip_common a b)) <= size b.
Proof.
  induction a as [|x a IH]; intros b; [destruct b; cbn [skip_common fst snd]; lia|].
  destruct b as [|y b]; cbn [skip_common]; [cbn [fst snd]; lia|].
  destruct (list_eqb x y); [|cbn [fst snd]; lia]. specialize (IH b). rewrite !size_cons. lia.
Qed.

Fixpoint emit_dotdot_k (segs : list (list N)) : N :=
  match segs with
  | [] => 1
  | [] :: _ => 2
  | (_ :: _) :: r => 5 + emit_dotdot_k r
  end.
Lemma emit_dotdot_k_le segs : emit_dotdot_k segs <= 3 * size segs + 2.
Proof.
  induction segs as [|s r IH]; [cbn; lia|]. destruct s as [|c s]; cbn [emit_dotdot_k]; rewrite size_cons; [lia|].
  rewrite nlen_cons. lia.
Qed.

Fixpoint emit_rest_k (segs : list (list N)) : N :=
  match segs with
  | [] => 1
  | s :: r => 3 + nlen s + emit_rest_k r
  end.
Lemma emit_rest_k_le segs : emit_rest_k segs <= 3 * size segs + 1.
Proof. induction segs as [|s r IH]; [cbn; lia|]. cbn [emit_rest_k]. rewrite size_cons. lia. Qed.

Definition add_filename_k (bf uf : list N) : N := 3 + eq_k bf uf + nlen uf.

(* ---------------------------------------------------------------- the path part *)
Definition extract_k (s : list N) : N := rcost 47 s + 3.

Definition mr_path_k (pb pt : list N) : N :=
  extract_k pb + extract_k pt
  + match extract_path_filename pb, extract_path_filename pt with
    | Some (p1, bf), Some (p2, uf) =>
        let a := split_on 47 p1 in
        let b := split_on 47 p2 in
        size a + size b                                  (* the two split('/') iterators: every byte at most once *)
        + skip_common_k a b
        + emit_dotdot_k (fst (skip_common a b)) + emit_rest_k (snd (skip_common a b))
        + add_filename_k bf uf
    | _, _ => 0
    end.

Lemma extract_len s p f : extract_path_filename s = Some (p, f) -> nlen p <= nlen s /\ nlen f <= nlen s.
Proof.
  unfold extract_path_filename. set (i := match rfind 47 s with Some i => i | None => 0 end).
  pose proof (nlen_nfirstn_le2 i s) as H1. pose proof (nskipn_len i s) as H2.
  destruct (nskipn i s) as [|c r] eqn:E.
  - intros H. inversion H; subst. change (nlen []) with 0. lia.
  - destruct (char_boundary_1 (c :: r)); [|discriminate]. intros H. inversion H; subst. rewrite nlen_cons in H2. lia.
Qed.

Theorem mr_path_k_le pb pt : mr_path_k pb pt <= 9 * nlen pb + 6 * nlen pt + 26.
Proof.
  unfold mr_path_k, extract_k. pose proof (rcost_le 47 pb) as R1. pose proof (rcost_le 47 pt) as R2.
  destruct (extract_path_filename pb) as [[p1 bf]|] eqn:E1; [|lia].
  destruct (extract_path_filename pt) as [[p2 uf]|] eqn:E2; [|lia].
  destruct (extract_len pb p1 bf E1) as [L1 L2]. destruct (extract_len pt p2 uf E2) as [L3 L4]. cbv zeta.
  pose proof (size_split_on 47 p1) as S1. pose proof (size_split_on 47 p2) as S2.
  set (a := split_on 47 p1) in *. set (b := split_on 47 p2) in *.
  pose proof (skip_common_k_le a b) as K1. destruct (skip_common_size a b) as [K2 K3].
  pose proof (emit_dotdot_k_le (fst (skip_common a b))) as K4. pose proof (emit_rest_k_le (snd (skip_common a b))) as K5.
  unfold add_filename_k, eq_k. destruct (nlen bf =? nlen uf); lia.
Qed.

(* ---------------------------------------------------------------- the whole method *)
Definition optlen (o : option (list N)) : N := match o with Some x => 1 + nlen x | None => 0 end.

(* the comparisons in front of the path part (two cannot_be_a_base, scheme, host, port), the path part, and the copies
   of query and fragment *)
Definition make_relative_k (dbg : bool) (b t : url) : N :=
  match scheme b, scheme t, host_str b, path b, path t, query dbg t, fragment dbg t with
  | Some sb, Some st, Some hb, Some pb, Some pt, Some q, Some f =>
      4 + eq_k sb st + (1 + optlen hb) + mr_path_k pb pt + optlen q + optlen f
  | _, _, _, _, _, _, _ => 0
  end.

Lemma path_len u p : path u = Some p -> nlen p <= nlen (ser u).
Proof.
  unfold path. destruct (query_start u) as [i|]; [exact (slice_o_le _ _ _ p)|].
  destruct (fragment_start u) as [i|]; [exact (slice_o_le _ _ _ p) | exact (slice_from_o_len _ _ p)].
Qed.
Lemma scheme_len u s : scheme u = Some s -> nlen s <= nlen (ser u).
Proof. unfold scheme. exact (slice_to_o_len _ _ s). Qed.
Lemma host_str_len u h : host_str u = Some h -> optlen h <= 1 + nlen (ser u).
Proof.
  unfold host_str. destruct (has_host u); [|intros H; inversion H; subst; cbn; lia].
  unfold u_slice. destruct (slice_o (ser u) (host_start u) (host_end u)) as [s|] eqn:E; [|discriminate].
  intros H. cbn in H. inversion H; subst. cbn [optlen]. pose proof (slice_o_le _ _ _ s E). lia.
Qed.

Lemma bindo_some {A B} (x : option A) (f : A -> option B) r : bindo x f = Some r -> exists a, x = Some a /\ f a = Some r.
Proof. destruct x as [a|]; [intros H; exists a; split; [reflexivity | exact H] | discriminate]. Qed.

Lemma query_len dbg u q : query dbg u = Some q -> optlen q <= 1 + nlen (ser u).
Proof.
  unfold query. destruct (query_start u) as [i|]; [|intros H; inversion H; subst; cbn; lia].
  destruct (fragment_start u) as [j|]; intros H.
  - apply bindo_some in H. destruct H as (_ & _ & H). apply bindo_some in H. destruct H as (s & Hs & H).
    inversion H; subst. cbn [optlen]. pose proof (slice_o_le _ _ _ s Hs). lia.
  - apply bindo_some in H. destruct H as (_ & _ & H). apply bindo_some in H. destruct H as (s & Hs & H).
    inversion H; subst. cbn [optlen]. pose proof (slice_from_o_len _ _ s Hs). lia.
Qed.
Lemma fragment_len dbg u f : fragment dbg u = Some f -> optlen f <= 1 + nlen (ser u).
Proof.
  unfold fragment. destruct (fragment_start u) as [j|]; [|intros H; inversion H; subst; cbn; lia]. intros H.
  apply bindo_some in H. destruct H as (_ & _ & H). apply bindo_some in H. destruct H as (s & Hs & H).
  inversion H; subst. cbn [optlen]. pose proof (slice_from_o_len _ _ s Hs). lia.
Qed.

Theorem make_relative_k_le dbg b t : make_relative_k dbg b t <= 12 * nlen (ser b) + 8 * nlen (ser t) + 35.
Proof.
  unfold make_relative_k.
  destruct (scheme b) as [sb|] eqn:E1; [|lia]. destruct (scheme t) as [st|] eqn:E2; [|lia].
  destruct (host_str b) as [hb|] eqn:E3; [|lia]. destruct (path b) as [pb|] eqn:E4; [|lia].
  destruct (path t) as [pt|] eqn:E5; [|lia]. destruct (query dbg t) as [q|] eqn:E6; [|lia].
  destruct (fragment dbg t) as [f|] eqn:E7; [|lia].
  pose proof (scheme_len b sb E1). pose proof (host_str_len b hb E3). pose proof (path_len b pb E4).
  pose proof (path_len t pt E5). pose proof (query_len dbg t q E6). pose proof (fragment_len dbg t f E7).
  pose proof (mr_path_k_le pb pt). unfold eq_k. destruct (nlen sb =? nlen st); lia.
Qed.

(* make_relative_k counts a run of the model: whenever Url::make_relative returns (Some or None, no panic) the seven
   accessors it is defined from returned as well *)
Theorem make_relative_k_defined dbg b t r : make_relative dbg b t = Some (Some r) ->
  exists sb st pb pt q f, scheme b = Some sb /\ scheme t = Some st /\ path b = Some pb /\ path t = Some pt
    /\ query dbg t = Some q /\ fragment dbg t = Some f.
Proof.
  unfold make_relative. intros H.
  apply bindo_some in H. destruct H as (cb & _ & H). apply bindo_some in H. destruct H as (ct & _ & H).
  destruct (cb || ct); [discriminate|].
  apply bindo_some in H. destruct H as (sb & Hsb & H). apply bindo_some in H. destruct H as (st & Hst & H).
  destruct (negb (list_eqb sb st)); [discriminate|].
  apply bindo_some in H. destruct H as (hb & _ & H). apply bindo_some in H. destruct H as (ht & _ & H).
  destruct (negb (mr_opt_host_eqb hb ht)); [discriminate|]. destruct (negb (opt_eqb (port b) (port t))); [discriminate|].
  apply bindo_some in H. destruct H as (pb & Hpb & H). apply bindo_some in H. destruct H as (pt & Hpt & H).
  apply bindo_some in H. destruct H as (eb & _ & H). apply bindo_some in H. destruct H as (et & _ & H).
  apply bindo_some in H. destruct H as (q & Hq & H). apply bindo_some in H. destruct H as (f & Hf & H).
  exists sb, st, pb, pt, q, f. tauto.
Qed.
