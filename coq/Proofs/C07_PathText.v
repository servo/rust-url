(* Proofs/C07_PathText.v - the pathname setter on texts: Url::set_path runs the path start state of parser.rs in the
   SETTER context; by Proofs/C02_PathSetter.v that is the URL-parser context on the text with '?' -> "%3F" and
   '#' -> "%23" (qh_sub), and by the path equivalence of C01 (loop_exact / loop_exact_s) the text written behind the
   serialization is the serialization of the Standard's segment list - here: of spathO, the Standard's path state WITH
   a state override (Proofs/C07_SpecPath.v), which is the override-free path state on the same substituted text.
   Excluded, exactly as in C01: a ".." that meets a drive-letter-shaped last segment (spath_okO; finding F-C07-12);
   class 1 of Known_C07 (a drive-letter-shaped piece AND two adjacent dots in the raw value) contains every such value
   (known1_okO). *)
From Coq Require Import ZifyBool ZifyN.
From RU Require Import Base.Prelude Base.Utf8 Base.Utf8Facts Model.AsciiSet Gen.Tables
  Model.PercentEncoding Model.HostT Model.UrlRecord Model.Parser Model.Setters Model.WF Model.KnownC01 Model.KnownC07 Spec.Whatwg
  Proofs.ListN Proofs.C14_Set Proofs.C14_Enc Proofs.C14_Views Proofs.C02_Enc Proofs.C02_Parts
  Proofs.C02_Opaque Proofs.C02_Path Proofs.C02_PathL1 Proofs.C02_PathSp Proofs.C02_Auth Proofs.C02_PathSetter
  Proofs.C08_Input Proofs.C01_EqRun Proofs.C01_EqEnc Proofs.C01_EqDots Proofs.C01_EqPathSpec Proofs.C01_EqPath
  Proofs.C01_EqSpSpec Proofs.C01_EqSpPath Proofs.C01_KnownExact Proofs.C01_EqSpKnown
  Proofs.C07_SpecRun Proofs.C07_SpecPath.

(* the override path state is the plain one on the substituted text *)
Lemma upe_cp_sub :
  utf8_percent_encode_cp in_path_set 63 = [37; 51; 70] /\ utf8_percent_encode_cp in_path_set 35 = [37; 50; 51]
  /\ utf8_percent_encode_cp in_path_set 37 = [37] /\ utf8_percent_encode_cp in_path_set 51 = [51]
  /\ utf8_percent_encode_cp in_path_set 70 = [70] /\ utf8_percent_encode_cp in_path_set 50 = [50].
Proof. vm_compute. repeat split. Qed.

(* no ".." of the text meets a drive-letter-shaped last segment: the path state with a state override *)
Fixpoint spath_okO (sp : bool) (t : list N) (P : list (list N)) (B : list N) : bool :=
  match t with
  | [] => fin_ok P B
  | c :: r => if sepc sp c then fin_ok P B && spath_okO sp r (fin P B true) []
              else spath_okO sp r P (B ++ utf8_percent_encode_cp in_path_set c)
  end.

Lemma sepc_false c : sepc false c = (c =? 47).
Proof. unfold sepc. cbn [andb]. apply orb_false_r. Qed.
Lemma sepc_true c : sepc true c = is_sl c.
Proof. reflexivity. Qed.

Lemma app3 (B : list N) a b c : ((B ++ [a]) ++ [b]) ++ [c] = B ++ [a; b; c].
Proof. rewrite <- !app_assoc. reflexivity. Qed.

Lemma spathO_ns t : forall P B, spathO false t P B = fst (spath (qh_sub t) P B).
Proof.
  destruct upe_cp_sub as (E63 & E35 & E37 & E51 & E70 & E50).
  induction t as [|c r IH]; intros P B; [reflexivity|]. cbn [spathO qh_sub]. rewrite sepc_false.
  destruct (c =? 63) eqn:C63.
  - apply N.eqb_eq in C63. subst c. change (63 =? 47) with false. cbn iota.
    cbn [spath]. change (37 =? 47) with false. change (51 =? 47) with false. change (70 =? 47) with false.
    change (is_qh 37) with false. change (is_qh 51) with false. change (is_qh 70) with false. cbn iota.
    rewrite E63, E37, E51, E70, app3. apply IH.
  - destruct (c =? 35) eqn:C35.
    + apply N.eqb_eq in C35. subst c. change (35 =? 47) with false. cbn iota.
      cbn [spath]. change (37 =? 47) with false. change (50 =? 47) with false. change (51 =? 47) with false.
      change (is_qh 37) with false. change (is_qh 50) with false. change (is_qh 51) with false. cbn iota.
      rewrite E35, E37, E50, E51, app3. apply IH.
    + cbn [spath]. destruct (c =? 47); [apply IH|].
      unfold is_qh. rewrite C63, C35. cbn [orb]. apply IH.
Qed.

Lemma spathO_sp t : forall P B, spathO true t P B = fst (spath_s (qh_sub t) P B).
Proof.
  destruct upe_cp_sub as (E63 & E35 & E37 & E51 & E70 & E50).
  induction t as [|c r IH]; intros P B; [reflexivity|]. cbn [spathO qh_sub]. rewrite sepc_true.
  destruct (c =? 63) eqn:C63.
  - apply N.eqb_eq in C63. subst c. change (is_sl 63) with false. cbn iota.
    cbn [spath_s]. change (is_sl 37) with false. change (is_sl 51) with false. change (is_sl 70) with false.
    change (is_qh 37) with false. change (is_qh 51) with false. change (is_qh 70) with false. cbn iota.
    rewrite E63, E37, E51, E70, app3. apply IH.
  - destruct (c =? 35) eqn:C35.
    + apply N.eqb_eq in C35. subst c. change (is_sl 35) with false. cbn iota.
      cbn [spath_s]. change (is_sl 37) with false. change (is_sl 50) with false. change (is_sl 51) with false.
      change (is_qh 37) with false. change (is_qh 50) with false. change (is_qh 51) with false. cbn iota.
      rewrite E35, E37, E50, E51, app3. apply IH.
    + cbn [spath_s]. destruct (is_sl c); [apply IH|].
      unfold is_qh. rewrite C63, C35. cbn [orb]. apply IH.
Qed.

Lemma spath_okO_ns t : forall P B, spath_okO false t P B = spath_ok (qh_sub t) P B.
Proof.
  destruct upe_cp_sub as (E63 & E35 & E37 & E51 & E70 & E50).
  induction t as [|c r IH]; intros P B; [reflexivity|]. cbn [spath_okO qh_sub]. rewrite sepc_false.
  destruct (c =? 63) eqn:C63.
  - apply N.eqb_eq in C63. subst c. change (63 =? 47) with false. cbn iota.
    cbn [spath_ok]. change (37 =? 47) with false. change (51 =? 47) with false. change (70 =? 47) with false.
    change (is_qh 37) with false. change (is_qh 51) with false. change (is_qh 70) with false. cbn iota.
    rewrite E63, E37, E51, E70, app3. apply IH.
  - destruct (c =? 35) eqn:C35.
    + apply N.eqb_eq in C35. subst c. change (35 =? 47) with false. cbn iota.
      cbn [spath_ok]. change (37 =? 47) with false. change (50 =? 47) with false. change (51 =? 47) with false.
      change (is_qh 37) with false. change (is_qh 50) with false. change (is_qh 51) with false. cbn iota.
      rewrite E35, E37, E50, E51, app3. apply IH.
    + cbn [spath_ok]. destruct (c =? 47); [rewrite IH; reflexivity|].
      unfold is_qh. rewrite C63, C35. cbn [orb]. apply IH.
Qed.

Lemma spath_okO_sp t : forall P B, spath_okO true t P B = spath_ok_s (qh_sub t) P B.
Proof.
  destruct upe_cp_sub as (E63 & E35 & E37 & E51 & E70 & E50).
  induction t as [|c r IH]; intros P B; [reflexivity|]. cbn [spath_okO qh_sub]. rewrite sepc_true.
  destruct (c =? 63) eqn:C63.
  - apply N.eqb_eq in C63. subst c. change (is_sl 63) with false. cbn iota.
    cbn [spath_ok_s]. change (is_sl 37) with false. change (is_sl 51) with false. change (is_sl 70) with false.
    change (is_qh 37) with false. change (is_qh 51) with false. change (is_qh 70) with false. cbn iota.
    rewrite E63, E37, E51, E70, app3. apply IH.
  - destruct (c =? 35) eqn:C35.
    + apply N.eqb_eq in C35. subst c. change (is_sl 35) with false. cbn iota.
      cbn [spath_ok_s]. change (is_sl 37) with false. change (is_sl 50) with false. change (is_sl 51) with false.
      change (is_qh 37) with false. change (is_qh 50) with false. change (is_qh 51) with false. cbn iota.
      rewrite E35, E37, E50, E51, app3. apply IH.
    + cbn [spath_ok_s]. destruct (is_sl c); [rewrite IH; reflexivity|].
      unfold is_qh. rewrite C63, C35. cbn [orb]. apply IH.
Qed.

Lemma ntnl_qh_sub l : ntnl (qh_sub l) = qh_sub (ntnl l).
Proof.
  induction l as [|c r IH]; [reflexivity|]. cbn [qh_sub].
  destruct (c =? 63) eqn:C63.
  - apply N.eqb_eq in C63. subst c. rewrite (ntnl_cons 63 r eq_refl). cbn [qh_sub]. change (63 =? 63) with true. cbn iota.
    rewrite !ntnl_cons by reflexivity. rewrite IH. reflexivity.
  - destruct (c =? 35) eqn:C35.
    + apply N.eqb_eq in C35. subst c. rewrite (ntnl_cons 35 r eq_refl). cbn [qh_sub]. change (35 =? 63) with false. change (35 =? 35) with true. cbn iota.
      rewrite !ntnl_cons by reflexivity. rewrite IH. reflexivity.
    + destruct (is_tnl c) eqn:Et.
      * rewrite !ntnl_cons_tnl by exact Et. exact IH.
      * rewrite !ntnl_cons by exact Et. cbn [qh_sub]. rewrite C63, C35, IH. reflexivity.
Qed.

(* parse_path_start in the setter context, exactly *)
Section PathStartSetter.
Variable dbg : bool.

(* non-special scheme, the text starts with '/' *)
Theorem pps_setter_exact_ns s0 p r hh : usv_list p -> inp_next p = Some (47, r) ->
  spath_okO false (ntnl r) [] [] = true ->
  exists rem, parse_path_start dbg CSetter STNotSpecial hh s0 p
              = POk (s0 ++ flat_map (fun s => 47 :: s) (spathO false (ntnl r) [] []), hh, rem).
Proof.
  intros Hu En Hok. unfold parse_path_start, inp_split_first. cbn [st_is_special]. rewrite En.
  change ((47 =? 63) || (47 =? 35)) with false. change (47 =? 47) with true. cbn iota.
  unfold parse_path.
  rewrite (loop_setter_sub dbg STNotSpecial eq_refl (nlen s0) p s0 (nlen s0) [] [] hh Hu pend_eq_nil).
  rewrite (C02_Auth.loop_first_slash dbg (nlen s0) (qh_sub p) (qh_sub r) s0 hh)
    by (apply inp_next_sub; [exact En | reflexivity]).
  pose proof (inp_next_usv p 47 r Hu En) as Hur. pose proof (usv_qh_sub r Hur) as Hur'.
  assert (pend_ok []) as Hp0 by (split; [constructor | reflexivity]).
  assert (Bs s0 [] = s0 ++ [47]) as EB by (unfold Bs; cbn; rewrite !app_nil_r; reflexivity).
  rewrite spath_okO_ns, <- ntnl_qh_sub in Hok.
  destruct (loop_exact s0 dbg (qh_sub r) [] [] [] hh Hur' Hp0 eq_refl eq_refl Hok) as (segs & last & Hloop & Hfst & _).
  cbn [app rev utf8_encode flat_map encode] in Hfst.
  rewrite app_nil_r, EB in Hloop. rewrite Hloop.
  exists (cbb_rest (qh_sub r)). f_equal. f_equal. f_equal.
  rewrite spathO_ns, <- ntnl_qh_sub, Hfst, path_text_flat. unfold Bs, path_text. rewrite <- !app_assoc. reflexivity.
Qed.

(* non-special scheme, nothing but tab / newline: the path becomes empty *)
Theorem pps_setter_empty_ns s0 p hh : usv_list p -> inp_next p = None ->
  parse_path_start dbg CSetter STNotSpecial hh s0 p = POk (s0, hh, []).
Proof.
  intros Hu En. unfold parse_path_start, inp_split_first. cbn [st_is_special]. rewrite En. unfold parse_path.
  rewrite (loop_setter_sub dbg STNotSpecial eq_refl (nlen s0) p s0 (nlen s0) [] [] hh Hu pend_eq_nil).
  apply C02_PathSetter.loop_all_tnl. apply inp_next_none_sub. exact En.
Qed.

(* special scheme: a leading '/' or '\' opens the first segment, whatever the text in front ends with *)
Lemma loop_first_sl_sp ps c r ser hh : is_sl c = true ->
  parse_path_loop dbg CUrlParser STSpecialNotFile ps (c :: r) ser (nlen ser) [] hh
  = parse_path_loop dbg CUrlParser STSpecialNotFile ps r (ser ++ [47]) (nlen (ser ++ [47])) [] hh.
Proof.
  intros Hsl.
  assert (finish_segment dbg STSpecialNotFile ps (ser ++ [47]) (nlen ser) true hh = POk (ser ++ [47], hh)) as Hf.
  { apply (finish_plain_sp dbg ps (ser ++ [47]) (nlen ser) true hh []); [| reflexivity | reflexivity].
    rewrite nlen_app. replace (nlen ser + nlen [47] - 1) with (nlen ser) by (unfold nlen; cbn [length]; lia).
    rewrite <- (app_nil_l [47]). replace (nlen ser) with (nlen ser + nlen []) at 2 by (rewrite nlen_nil; lia).
    apply slice_mid. }
  assert (c = 47 \/ c = 92) as [-> | ->] by (unfold is_sl in Hsl; lia).
  - rewrite loop_cons_slash_sp. cbn [push_pending]. rewrite Hf. reflexivity.
  - rewrite loop_cons_bslash_sp. cbn [push_pending]. rewrite Hf. reflexivity.
Qed.

(* special scheme, the text starts with '/' or '\' *)
Theorem pps_setter_exact_sp s0 c r hh : usv_list (c :: r) -> is_sl c = true ->
  spath_okO true (ntnl r) [] [] = true ->
  exists rem, parse_path_start dbg CSetter STSpecialNotFile hh s0 (c :: r)
              = POk (s0 ++ flat_map (fun s => 47 :: s) (spathO true (ntnl r) [] []), hh, rem).
Proof.
  intros Hu Hsl Hok.
  assert (is_tnl c = false) as Et by (unfold is_sl in Hsl; unfold is_tnl; lia).
  pose proof (inp_next_cons c r Et) as En.
  pose proof (inp_next_usv (c :: r) c r Hu En) as Hur. pose proof (usv_qh_sub r Hur) as Hur'.
  assert (pend_ok []) as Hp0 by (split; [constructor | reflexivity]).
  assert (Bs s0 [] = s0 ++ [47]) as EB by (unfold Bs; cbn; rewrite !app_nil_r; reflexivity).
  rewrite spath_okO_sp, <- ntnl_qh_sub in Hok.
  destruct (loop_exact_s s0 dbg (qh_sub r) [] [] [] hh Hur' Hp0 eq_refl eq_refl Hok) as (segs & last & Hloop & Hfst & _).
  cbn [app rev utf8_encode flat_map encode] in Hfst.
  rewrite app_nil_r, EB in Hloop.
  assert (Bs s0 segs ++ last = s0 ++ flat_map (fun s => 47 :: s) (spathO true (ntnl r) [] [])) as Eout.
  { rewrite spathO_sp, <- ntnl_qh_sub, Hfst, path_text_flat. unfold Bs, path_text. rewrite <- !app_assoc. reflexivity. }
  rewrite Eout in Hloop. exists (cbb_rest (qh_sub r)).
  unfold parse_path_start, inp_split_first. cbn [st_is_special]. rewrite En. rewrite is_sl_model, Hsl.
  destruct (ends_with_byte 47 s0); cbn [negb]; unfold parse_path.
  - rewrite (loop_setter_sub dbg STSpecialNotFile eq_refl (nlen s0) (c :: r) s0 (nlen s0) [] [] hh Hu pend_eq_nil).
    cbn [qh_sub].
    assert ((c =? 63) = false /\ (c =? 35) = false) as [-> ->] by (unfold is_sl in Hsl; lia).
    rewrite (loop_first_sl_sp (nlen s0) c (qh_sub r) s0 hh Hsl). exact Hloop.
  - rewrite (loop_setter_sub dbg STSpecialNotFile eq_refl (nlen s0) r (s0 ++ [47]) (nlen (s0 ++ [47])) [] [] hh Hur pend_eq_nil).
    exact Hloop.
Qed.

End PathStartSetter.

(* the new path has no '?' and no '#' *)
Lemma upe_cp_no_qh_all c : no_qh (utf8_percent_encode_cp in_path_set c) = true.
Proof.
  destruct (is_qh c) eqn:E; [|exact (upe_cp_no_qh c E)].
  assert (c = 63 \/ c = 35) as [-> | ->] by (unfold is_qh in E; lia); vm_compute; reflexivity.
Qed.

Lemma spathO_no_qh sp t : forall P B, forallb no_qh P = true -> no_qh B = true ->
  forallb no_qh (spathO sp t P B) = true.
Proof.
  induction t as [|c r IH]; intros P B HP HB; cbn [spathO].
  - apply fin_no_qh; assumption.
  - destruct (sepc sp c); [apply IH; [apply fin_no_qh; assumption | reflexivity]|].
    apply IH; [exact HP|]. unfold no_qh in *. rewrite forallb_app, HB. cbn [andb]. apply upe_cp_no_qh_all.
Qed.

Lemma spathO_flat_no_qh sp t :
  forallb (fun c => negb ((c =? 63) || (c =? 35))) (flat_map (fun s => 47 :: s) (spathO sp t [] [])) = true.
Proof. apply flat_no_qh. apply spathO_no_qh; reflexivity. Qed.

Lemma spathO_nonempty sp t : forall P B, spathO sp t P B <> [].
Proof.
  induction t as [|c r IH]; intros P B; cbn [spathO]; [apply fin_nonempty|].
  destruct (sepc sp c); apply IH.
Qed.
