(* Proofs/C07_FileShape.v - the layout of every record Parser::parse_file returns without a file base:
   "file://" in front, scheme_end = 4, username_end = host_start = 7, no port.  (Proofs/C03_ReachFile.v proves
   wf_b and the host text facts of these records; here the fields that the C07 bridge related => corrS needs for
   file records: no credentials, no port, "//" present, scheme "file".) *)
From RU Require Import Base.Prelude Base.Utf8 Model.AsciiSet Gen.Tables Model.PercentEncoding
  Model.HostT Model.UrlRecord Model.Parser Model.Setters Model.WF
  Proofs.ListN Proofs.C06_List Proofs.C02_Parts Proofs.C03_WF Proofs.C06_WFI Proofs.C06_Tail Proofs.C06_Steps
  Proofs.C06_Suffix Proofs.C06_PathParser Proofs.C06_FragQuery Proofs.C04_Parse Proofs.C04_PathTotal Proofs.C04_ParseTotal
  Proofs.C03_ReachParts Proofs.C03_Reach Proofs.C03_ReachFile
  Proofs.C05_Enc Proofs.C05_Parser Proofs.C05_Frag Proofs.C05_PathClean Proofs.C05_ParseUI Proofs.C05_ParseArms Proofs.C05_ParseAll
  Proofs.C05_BaseOk.

(* a record "file://..." as parse_file builds it *)
Definition file_shaped (u : url) : Prop :=
  scheme_end u = 4 /\ username_end u = 7 /\ host_start u = 7 /\ port u = None /\ nfirstn 7 (ser u) = s_file_css.

Section FileShape.
Variable dbg : bool.
Variable hp : list N -> result host.
Variable hd : host -> list N.
Variable ovr : option (list N -> list N).

Lemma css7_len s : nfirstn 7 s = s_file_css -> 7 <= nlen s.
Proof.
  intros H. destruct (N.le_gt_cases 7 (nlen s)) as [L|L]; [exact L|]. exfalso.
  assert (nlen (nfirstn 7 s) = 7) as K by (rewrite H; reflexivity).
  rewrite nfirstn_all in K by lia. lia.
Qed.

Lemma file_tail_shaped st s he hi rem s4 qs fs :
  parse_query_and_fragment ovr CUrlParser st 4 s rem = POk (s4, qs, fs) -> nfirstn 7 s = s_file_css ->
  file_shaped (file_url s4 7 he hi qs fs).
Proof.
  intros H P7. unfold file_shaped, file_url. cbn [ser scheme_end username_end host_start port].
  repeat split. rewrite (pqf_keep_pre _ _ _ _ _ _ _ _ 7 H (css7_len s P7)). exact P7.
Qed.

Lemma file_fresh_shaped st hh l u :
  (' (s2, _, rem) <~ parse_path dbg CUrlParser STFile hh 7 (s_file_css ++ [47]) l ;;
   ' (s3, qs, fs) <~ parse_query_and_fragment ovr CUrlParser st 4 s2 rem ;;
   POk (file_url s3 7 7 HI_None qs fs)) = POk u -> file_shaped u.
Proof.
  intros H. pb H a Ha. destruct a as [[s2 h2] rem]. pb H c Hc. destruct c as [[s3 qs] fs]. inversion H; subst u.
  assert (PInvQ 7 s_file_css (s_file_css ++ [47])) as I1.
  { apply pinvq_app; [reflexivity | exact (pinvq_start s_file_css) | reflexivity]. }
  pose proof (pinvq_parse_path dbg 7 s_file_css eq_refl _ _ _ _ _ _ _ _ Ha I1) as I2.
  apply (file_tail_shaped st s2 _ _ rem s3 qs fs Hc). exact (proj1 I2).
Qed.

Theorem parse_file_nobase_shaped st l u :
  parse_file dbg hp hd ovr CUrlParser st None l = POk u -> file_shaped u.
Proof.
  unfold parse_file. destruct (inp_split_first l) as [first_char after_first] eqn:Esf.
  destruct (match first_char with Some c => is_slash_or_bslash c | None => false end) eqn:Efs.
  - destruct (inp_split_first after_first) as [next_char after_next].
    destruct (match next_char with Some c => is_slash_or_bslash c | None => false end).
    + intros H. pb H a Ha. destruct a as [[[ser1 flag] hi] remaining]. destruct (pfh_pre hp hd _ _ _ _ _ _ Ha) as (t & ->).
      pb H he Hhe. apply to_u32_eq in Hhe. subst he. cbv zeta in H.
      pb H b Hb2. destruct b as [[ser2 hh] rem2].
      assert (exists P, ser2 = (s_file_css ++ t) ++ P) as (P & ->).
      { destruct flag.
        - destruct (parse_path_start_clean dbg CUrlParser STFile _ _ _ _ _ _ Hb2) as (P & E & _). exists P. exact E.
        - assert (PInvQ (nlen (s_file_css ++ t)) (s_file_css ++ t) ((s_file_css ++ t) ++ [47])) as I1
            by (apply pinvq_app; [reflexivity | apply pinvq_start | reflexivity]).
          destruct (pinvq_split _ _ (pinvq_parse_path dbg _ _ eq_refl _ _ _ _ _ _ _ _ Hb2 I1)) as (P & E & _). exists P. exact E. }
      assert (nfirstn 7 ((s_file_css ++ t) ++ P) = s_file_css) as P7 by (rewrite <- app_assoc; apply file_css_pre).
      destruct (negb hh); cbv beta iota zeta in H; pb H c Hc; destruct c as [[ser4 qs] fs]; inversion H; subst u.
      * apply (file_tail_shaped st _ _ _ rem2 ser4 qs fs Hc). rewrite P7. apply file_css_pre.
      * exact (file_tail_shaped st _ _ _ rem2 ser4 qs fs Hc P7).
    + assert ((if negb (starts_with_wdl_segment after_first) then (s_file_css, 7, HI_None) else (s_file_css, 7, HI_None))
              = (s_file_css, 7, HI_None)) as Eif by (destruct (negb (starts_with_wdl_segment after_first)); reflexivity).
      rewrite Eif.
      intros H. pb H a Ha. destruct a as [[ser2 hh] remaining]. pb H c Hc. destruct c as [[ser3 qs] fs]. inversion H; subst u.
      assert (PInvQ 7 (nfirstn 7 s_file_css) s_file_css) as I1 by (split; reflexivity).
      pose proof (pinvq_parse_path dbg 7 (nfirstn 7 s_file_css) eq_refl _ _ _ _ _ _ _ _ Ha I1) as I2.
      apply (file_tail_shaped st ser2 _ _ remaining ser3 qs fs Hc).
      apply (pinvq_file_pre 7 (nfirstn 7 s_file_css) ser2 (N.le_refl _) eq_refl); [reflexivity | exact I2].
  - apply file_fresh_shaped.
Qed.

End FileShape.

(* the whole parser on an input whose scheme is "file", no base *)
Theorem parse_url_file_shaped dbg hp hpo hd ovr input sch rem u :
  parse_scheme CUrlParser (input_new_trim_c0 input) = Some (sch, rem) ->
  st_is_file (scheme_type_of sch) = true ->
  parse_url dbg hp hpo hd ovr None input = POk u -> file_shaped u.
Proof.
  intros Es Hf Hp. unfold parse_url in Hp. rewrite Es in Hp. unfold parse_with_scheme in Hp.
  destruct (to_u32 (nlen sch)) as [se| |]; cbn [pbind] in Hp; try discriminate Hp.
  destruct (scheme_type_of sch); try discriminate Hf.
  exact (parse_file_nobase_shaped dbg hp hd ovr _ rem u Hp).
Qed.

(* what the bridge needs *)
Lemma file_shaped_facts u : wf_b u = true -> file_shaped u ->
  b_scheme u = s_file /\ has_authority_b u = true /\ username_end u = host_start u /\ port u = None
  /\ username_end u <= scheme_end u + 3.
Proof.
  intros W (E1 & E2 & E3 & E4 & E5). split.
  - unfold b_scheme. rewrite E1. rewrite <- (nfirstn_nfirstn 4 7 (ser u)) by lia. rewrite E5. reflexivity.
  - split; [|split; [congruence | split; [exact E4 | lia]]].
    unfold has_authority_b. rewrite E1.
    apply css_of_bytes; rewrite (file_pre_bytes (ser u) _ E5) by lia; reflexivity.
Qed.
