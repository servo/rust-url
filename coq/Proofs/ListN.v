(* Proofs/ListN.v - facts about the N-indexed list helpers of Model/UrlRecord.v.  The `piece_*` lemmas are about
   `nfirstn (b - a) (nskipn a l)`, the bytes of `l` from index a up to b, which is what `slice_o l a b` returns (`slice_o_some`). *)
From RU Require Import Base.Prelude Model.UrlRecord.

Lemma skipn_skipn_nat {A} (a b : nat) (l : list A) : skipn a (skipn b l) = skipn (a + b) l.
Proof.
  revert l. induction b as [|b IH]; intros l.
  - rewrite Nat.add_0_r. reflexivity.
  - destruct l as [|x l].
    + rewrite !skipn_nil. reflexivity.
    + rewrite Nat.add_succ_r. cbn [skipn]. apply IH.
Qed.

Lemma firstn_add_nat {A} (a b : nat) (l : list A) : firstn (a + b) l = firstn a l ++ firstn b (skipn a l).
Proof.
  revert l. induction a as [|a IH]; intros l; [reflexivity|].
  destruct l as [|x l]; [cbn [skipn]; rewrite !firstn_nil; reflexivity|].
  cbn [Nat.add firstn skipn app]. f_equal. apply IH.
Qed.

Lemma nlen_app a b : nlen (a ++ b) = nlen a + nlen b.
Proof. unfold nlen. rewrite app_length. lia. Qed.

Lemma nlen_nil : nlen [] = 0.
Proof. reflexivity. Qed.

Lemma nlen_cons x l : nlen (x :: l) = 1 + nlen l.
Proof. unfold nlen. cbn [length]. lia. Qed.

Lemma nlen_nfirstn n l : n <= nlen l -> nlen (nfirstn n l) = n.
Proof. unfold nlen, nfirstn. intros H. rewrite firstn_length. lia. Qed.

Lemma nlen_nfirstn_le n l : nlen (nfirstn n l) <= n.
Proof. unfold nlen, nfirstn. rewrite firstn_length. lia. Qed.

Lemma nlen_nskipn n l : nlen (nskipn n l) = nlen l - n.
Proof. unfold nlen, nskipn. rewrite skipn_length. lia. Qed.

Lemma nfirstn_nskipn n l : nfirstn n l ++ nskipn n l = l.
Proof. unfold nfirstn, nskipn. apply firstn_skipn. Qed.

Lemma nskipn_nskipn a b l : nskipn a (nskipn b l) = nskipn (a + b) l.
Proof. unfold nskipn. rewrite skipn_skipn_nat. f_equal. lia. Qed.

Lemma nskipn_0 l : nskipn 0 l = l.
Proof. reflexivity. Qed.

Lemma nfirstn_all n l : nlen l <= n -> nfirstn n l = l.
Proof. unfold nlen, nfirstn. intros H. apply firstn_all2. lia. Qed.

Lemma nskipn_all n l : nlen l <= n -> nskipn n l = [].
Proof. unfold nlen, nskipn. intros H. apply skipn_all2. lia. Qed.

(* consecutive pieces of one list *)
Lemma piece_app l a b c : a <= b -> b <= c ->
  nfirstn (b - a) (nskipn a l) ++ nfirstn (c - b) (nskipn b l) = nfirstn (c - a) (nskipn a l).
Proof.
  intros Hab Hbc. unfold nfirstn, nskipn.
  replace (N.to_nat b) with (N.to_nat (b - a) + N.to_nat a)%nat by lia.
  rewrite <- skipn_skipn_nat.
  set (m := skipn (N.to_nat a) l).
  replace (N.to_nat (c - a)) with (N.to_nat (b - a) + N.to_nat (c - b))%nat by lia.
  rewrite firstn_add_nat. reflexivity.
Qed.

Lemma piece_to_end l a b : a <= b ->
  nfirstn (b - a) (nskipn a l) ++ nskipn b l = nskipn a l.
Proof.
  intros Hab. unfold nfirstn, nskipn.
  replace (N.to_nat b) with (N.to_nat (b - a) + N.to_nat a)%nat by lia.
  rewrite <- skipn_skipn_nat. apply firstn_skipn.
Qed.

Lemma nnth_lt l i x : nnth l i = Some x -> i < nlen l.
Proof.
  unfold nnth, nlen. intros H.
  assert (nth_error l (N.to_nat i) <> None) as H1 by congruence.
  apply nth_error_Some in H1. lia.
Qed.

(* a one-byte piece *)
Lemma piece_one l i x : nnth l i = Some x -> nfirstn 1 (nskipn i l) = [x].
Proof.
  unfold nnth, nfirstn, nskipn. change (N.to_nat 1) with 1%nat.
  generalize (N.to_nat i). clear i. intros n. revert l.
  induction n as [|n IH]; intros l H.
  - destruct l; [discriminate|]. cbn in *. congruence.
  - destruct l; [discriminate|]. cbn [nth_error skipn] in *. apply IH. exact H.
Qed.

Lemma slice_o_some l a b : a <= b -> b <= nlen l -> slice_o l a b = Some (nfirstn (b - a) (nskipn a l)).
Proof. intros H1 H2. unfold slice_o. replace ((a <=? b) && (b <=? nlen l)) with true by lia. reflexivity. Qed.

Lemma slice_from_o_some l a : a <= nlen l -> slice_from_o l a = Some (nskipn a l).
Proof. intros H. unfold slice_from_o. replace (a <=? nlen l) with true by lia. reflexivity. Qed.

Lemma slice_to_o_some l b : b <= nlen l -> slice_to_o l b = Some (nfirstn b l).
Proof. intros H. unfold slice_to_o. replace (b <=? nlen l) with true by lia. reflexivity. Qed.

Lemma starts_with_app p l : starts_with p (p ++ l) = true.
Proof. induction p as [|x p IH]; [reflexivity|]. cbn [app starts_with]. rewrite N.eqb_refl. exact IH. Qed.

Lemma starts_with_split p l : starts_with p l = true -> l = p ++ skipn (length p) l.
Proof.
  revert l. induction p as [|x p IH]; intros l H; [reflexivity|].
  destruct l as [|y l]; [discriminate|]. cbn [starts_with] in H.
  apply andb_true_iff in H. destruct H as [H1 H2]. apply N.eqb_eq in H1. subst y.
  cbn [app length skipn]. f_equal. apply IH. exact H2.
Qed.

Lemma nskipn_app_len a b : nskipn (nlen a) (a ++ b) = b.
Proof.
  unfold nskipn, nlen. rewrite Nat2N.id. rewrite skipn_app, skipn_all, Nat.sub_diag. reflexivity.
Qed.

Lemma list_eqb_refl l : list_eqb l l = true.
Proof. apply list_eqb_spec. reflexivity. Qed.
