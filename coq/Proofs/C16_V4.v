(* Proofs/C16_V4.v - Host::parse's IDNA step (the IDNA model at the URL deny list, ANY adapter) maps a text of digits and
   dots to itself (dd_text_fixed).  Two consequences:
   v4_fixed_model: v4_fixed A cfg for every adapter A - the third premise of IdnaOK_of_model (Proofs/C09_InstIdna.v), the
     one behind the IPv4 clause of IdnaOK;
   ipv4_display_rt_model: the host model linked with that IDNA step reads the dotted-decimal text of every IPv4 address
     back as that address, i.e. C09_display_rt on IPv4 hosts holds of the model with no hypothesis IdnaOK. *)
From RU Require Import Base.Prelude Base.Utf8 Model.Uts46
  Proofs.Idna_Api Proofs.Idna_Hyp Proofs.Idna_C10_Deny Proofs.Idna_C10_Prefix
  Proofs.Idna_C10b_AsciiInner Proofs.Idna_C10b_AsciiWalk.
From RU Require Import Model.HostT Model.Host Proofs.C09_Host Proofs.C09_InstIdna.

Definition dd_char (c : N) : Prop := is_digit c = true \/ c = 46.

Lemma dd_ldh c : dd_char c -> ldh c = true.
Proof. unfold dd_char, ldh, is_digit, is_lower. intros [H| ->]; lia. Qed.

Lemma dd_label_an l : Forall dd_char l -> an_label l.
Proof.
  intros H. assert (Ha : Forall (fun b => b < 128) l).
  { eapply Forall_impl; [|exact H]. intros c [Hc| ->]; [unfold is_digit in Hc|]; lia. }
  split; [exact Ha|]. destruct (has_punycode_prefix l) eqn:Hp; [|reflexivity]. exfalso.
  destruct (xn_prefix_spec l Ha Hp) as (a & b & r & -> & Xa & _).
  inversion H as [|? ? Hc _]; subst. destruct Hc as [Hc|Hc]; [unfold is_digit in Hc|]; lia.
Qed.

Lemma dd_label_acc deny l : LdhFree deny -> Forall dd_char l -> lab_acc deny HAllow l = true.
Proof.
  intros HL H. unfold lab_acc. cbn [hy_is_allow orb]. rewrite andb_true_r. apply negb_true_iff.
  unfold cmap. induction H as [|c r Hc _ IH]; [reflexivity|]. cbn [map existsb]. rewrite IH, orb_false_r.
  pose proof (HL c (dd_ldh c Hc)) as Hm. unfold deny_member in Hm. apply negb_false_iff in Hm.
  unfold apply_upper. rewrite Hm. unfold is_fffd, FFFD, REPLACEMENT. destruct Hc as [Hc| ->]; [unfold is_digit in Hc|]; lia.
Qed.

Section V4.
Variable A : adapter.
Variable cfg : bool.

Theorem dd_text_fixed T : Forall dd_char T -> exists b, to_ascii A cfg T DENY_URL HAllow DIgnore = U32_c13.Ok (b, T).
Proof.
  intros H. destruct (valid_deny_facts DENY_URL valid_deny_url) as [HU HL].
  pose proof (split_on_Forall dd_char DOT T H) as Hs.
  assert (Han : AN T) by (unfold AN; eapply Forall_impl; [|exact Hs]; intros l Hl; exact (dd_label_an l Hl)).
  assert (Hacc : forallb (lab_acc DENY_URL HAllow) (split_on DOT T) = true).
  { apply forallb_forall. intros l Hl. rewrite Forall_forall in Hs. exact (dd_label_acc DENY_URL l HL (Hs l Hl)). }
  assert (Hlow : map to_lower T = T).
  { apply lower_noupper. eapply Forall_impl; [|exact H]. intros c [Hc| ->]; unfold is_upper; [unfold is_digit in Hc|]; lia. }
  destruct (to_ascii_an A cfg T DENY_URL HAllow DIgnore Han HU HL) as (b & Hb).
  rewrite Hacc, Hlow in Hb. cbn [dns_is_ignore orb andb] in Hb. exists b. exact Hb.
Qed.

Theorem v4_fixed_model : v4_fixed A cfg.
Proof. intros a Ha. destruct (ipv4_display_digits a Ha) as (Hd & _). exact (dd_text_fixed _ Hd). Qed.

Lemma idna_of_v4 a : a < 4294967296 -> idna_of A cfg (ipv4_display a) = Some (ipv4_display a).
Proof.
  intros Ha. unfold idna_of.
  assert (Ed : forallb is_byteb (ipv4_display a) = true).
  { destruct (ipv4_display_digits a Ha) as (Hd & _). apply forallb_forall. intros c Hc.
    rewrite Forall_forall in Hd. unfold is_byteb. destruct (Hd c Hc) as [D| ->]; [unfold is_digit in D|]; lia. }
  rewrite Ed. unfold domain_to_ascii_cow. destruct (v4_fixed_model a Ha) as [b E]. rewrite E. reflexivity.
Qed.

(* Display / Host::parse round trip on every IPv4 address (a < 2^32), host model + IDNA model: no hypothesis about the
   adapter or the IDNA step *)
Theorem ipv4_display_rt_model a : a < 4294967296 ->
  host_parse (idna_of A cfg) (ipv4_display a) = HostT.Ok (HIpv4 a).
Proof.
  intros H. apply x_ok_host_parse. destruct (ipv4_display_digits a H) as (Hd & Hn & He).
  assert (Ha : ascii (ipv4_display a)).
  { eapply Forall_impl; [|exact Hd]. intros c [Hc| ->]; unfold is_ascii; [unfold is_digit in Hc|]; lia. }
  assert (H37 : ~ In 37 (ipv4_display a)).
  { intros Hin. rewrite Forall_forall in Hd. destruct (Hd 37 Hin) as [Hc|Hc]; [vm_compute in Hc|]; discriminate. }
  assert (Hs : Host.starts_with 91 (ipv4_display a) = false).
  { destruct (ipv4_display a) as [|c r]; [reflexivity|]. cbn [Host.starts_with]. inversion Hd as [|? ? Hc _]; subst.
    destruct Hc as [Hc| ->]; [unfold is_digit in Hc; lia|reflexivity]. }
  unfold host_parse_x. rewrite Hs. rewrite C09_Host.utf8_encode_ascii by exact Ha. rewrite decode_no_pct by exact H37.
  rewrite (idna_of_v4 a H). rewrite He. rewrite parse_ipv4_display by exact H.
  destruct (ipv4_display a); [congruence|reflexivity].
Qed.
End V4.
