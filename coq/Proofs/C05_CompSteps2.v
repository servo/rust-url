(* Proofs/C05_CompSteps2.v - the component invariant CInv for the mutators that Proofs/C05_CompSteps.v leaves
   out: path_segments_mut sessions (any sequence of clear / pop / pop_if_empty / push / extend) and the quirks
   setters set_pathname, set_port, set_hostname and set_host (the latter when the value carries no port);
   and set_host(Some _) / the quirks host setters with the hypothesis on the host functions restricted to
   the hosts the parser returns (HostWf of C03) instead of every value of the model type `host`.
   session_inv is the session lemma for any class of bytes that the path states keep (C05_PathClean.PathInv);
   session_result and q_set_pathname_as_set_path say what the two path mutators do to the record, and are
   shared with the host-text and backslash invariants (C05_HostText, C05_PathSpSteps). *)
From RU Require Import Base.Prelude Base.Utf8 Base.Utf8Facts Model.AsciiSet Gen.Tables Model.PercentEncoding
  Model.HostT Model.UrlRecord Model.Parser Model.Setters Model.WF
  Proofs.ListN Proofs.C03_WF Proofs.C05_Enc Proofs.C05_Parser Proofs.C05_Setters Proofs.C05_History
  Proofs.C05_Frag Proofs.C05_Query Proofs.C05_Comp Proofs.C05_PathClean Proofs.C05_CompSteps
  Proofs.C06_List Proofs.C06_WFI Proofs.C06_Tail Proofs.C06_Steps Proofs.C06_Suffix
  Proofs.C06_Front Proofs.C06_Atomic Proofs.C06_FragQuery Proofs.C06_Port Proofs.C06_Cred Proofs.C06_Scheme
  Proofs.C06_HostNone Proofs.C06_Host Proofs.C06_PathParser Proofs.C06_Path Proofs.C06_Segments Proofs.C06_PathNoAuth
  Proofs.C06_Main Proofs.C06_PathMore Proofs.C06_Quirks Proofs.C03_ReachParts Proofs.C05_ParseUI.

(* 1. path_segments_mut sessions *)
Lemma scheme_type_set_ser u x : scheme_end u <= nlen x ->
  u_scheme_type (set_ser u x) = Some (scheme_type_of (nfirstn (scheme_end u) x)).
Proof.
  intros L. unfold u_scheme_type, scheme, u_slice_to, slice_to_o. cbn [ser set_ser scheme_end].
  replace (scheme_end u <=? nlen x) with true by lia. reflexivity.
Qed.

Section Sessions.
Variable dbg : bool.
Variable good : N -> bool.
Hypothesis good_slash : good 47 = true.

(* the path states of scheme type st keep PathInv in the path_segments_mut context *)
Definition path_keeps (ps : N) (s0 : list N) (st : scheme_type) : Prop :=
  forall ser l s' hh' rem, parse_path dbg CPathSegmentSetter st true ps ser l = POk (s', hh', rem) ->
    PathInv ps s0 good ser -> PathInv ps s0 good s'.

Lemma pathinv_extend_loop ps s0 (Hps : nlen s0 = ps) st (PP : path_keeps ps s0 st) segs : forall x s',
  psm_extend_loop dbg st ps x segs = Some s' -> PathInv ps s0 good x -> PathInv ps s0 good s'.
Proof.
  induction segs as [|seg rest IH]; intros x s' H I; cbn [psm_extend_loop] in H.
  - inversion H; subst. exact I.
  - destruct (psm_skips seg); [eapply IH; eassumption|].
    set (s1 := if (ps + 1 <? nlen x) || (nlen x =? ps) then x ++ [47] else x) in *.
    assert (PathInv ps s0 good s1) as I1.
    { subst s1. destruct ((ps + 1 <? nlen x) || (nlen x =? ps)); [|exact I]. apply (pathinv_app ps s0 good Hps); [exact I | cbn [forallb]; rewrite good_slash; reflexivity]. }
    destruct (parse_path dbg CPathSegmentSetter st true ps s1 seg) as [[[s2 hh] rem]| |] eqn:Epp;
      cbn [unpres bindo] in H; try discriminate.
    eapply IH; [exact H|]. exact (PP _ _ _ _ _ Epp I1).
Qed.

(* a session on a record whose path consists of good bytes writes such a path, provided the path states of
   the scheme of the record do in the path_segments_mut context; no condition on the segments (any numbers) *)
Lemma session_inv u ops u' : wf_b u = true ->
  byte_eqb (ser u) (scheme_end u + 1) 47 = true ->
  path_keeps (path_start u) (nfirstn (path_start u) (ser u)) (scheme_type_of (b_scheme u)) ->
  forallb good (piece u (path_start u) (path_end u)) = true ->
  path_segments_session dbg u ops = Some (u', SOk) ->
  exists P, u' = with_path u P /\ forallb good P = true.
Proof.
  intros W Hsl PP Hnb H. unfold piece in Hnb.
  destruct (wf_ps_le_path_end u W) as [B5 B6]. pose proof (wf_se_lt_ps u W) as B0.
  set (pe := path_end u) in *. set (ps := path_start u) in *.
  set (s0 := nfirstn ps (ser u)).
  assert (nlen s0 = ps) as Ls0 by (apply nlen_nfirstn; lia).
  set (x0 := nfirstn pe (ser u)).
  assert (nlen x0 = pe) as Lx0 by (apply nlen_nfirstn; exact B6).
  assert (PathInv ps s0 good x0) as I0.
  { split.
    - unfold x0, s0. apply nfirstn_nfirstn. exact B5.
    - unfold x0. replace pe with (ps + (pe - ps)) by lia. rewrite nskipn_nfirstn_comm. exact Hnb. }
  (* the scheme type read from a serialization that keeps the front *)
  assert (forall x, PathInv ps s0 good x -> u_scheme_type (set_ser u x) = Some (scheme_type_of (b_scheme u))) as Hst.
  { intros x Ix. pose proof (pathinv_len ps s0 good Ls0 x Ix) as Lx. rewrite scheme_type_set_ser by lia.
    destruct Ix as [J1 _]. unfold b_scheme. f_equal. f_equal.
    rewrite <- (nfirstn_nfirstn (scheme_end u) ps x) by lia. rewrite J1. unfold s0. apply nfirstn_nfirstn. lia. }
  unfold path_segments_session, path_segments_mut in H.
  rewrite (cannot_be_a_base_eval u W) in H. cbn [bindo] in H.
  rewrite Hsl in H. cbn [negb] in H.
  unfold psm_new in H. rewrite (take_after_path_eval u W) in H. cbn [bindo] in H. fold pe x0 in H.
  destruct (u_scheme_type (set_ser u x0)) as [st|] eqn:Est; cbn [bindo] in H; [|discriminate].
  match type of H with bindo (bindo (bindo ?c _) _) _ = _ => destruct c as [[]|]; cbn [bindo] in H; [|discriminate] end.
  cbn [ser set_ser path_start] in H. fold ps in H. rewrite Lx0 in H.
  set (p0 := mkPsm (set_ser u x0) (ps + 1) (nskipn pe (ser u)) pe) in H.
  destruct (psm_run dbg p0 ops) as [p1|] eqn:Erun; cbn [bindo] in H; [|discriminate].
  assert (forall ops p q, psm_run dbg p ops = Some q ->
            psm_url p = set_ser u (ser (psm_url p)) -> after_first_slash p = ps + 1 ->
            psm_after_path p = nskipn pe (ser u) -> psm_old_pos p = pe -> PathInv ps s0 good (ser (psm_url p)) ->
            psm_url q = set_ser u (ser (psm_url q)) /\ psm_after_path q = nskipn pe (ser u) /\ psm_old_pos q = pe
            /\ PathInv ps s0 good (ser (psm_url q))) as Hrun.
  { clear - Ls0 Hst PP good_slash. intros ops0. induction ops0 as [|o rest IH]; intros p q Hr E1 E2 E3 E4 I.
    - cbn in Hr. inversion Hr; subst. tauto.
    - cbn [psm_run] in Hr. destruct (psm_apply dbg p o) as [p'|] eqn:Eo; cbn [bindo] in Hr; [|discriminate].
      assert (psm_url p' = set_ser u (ser (psm_url p')) /\ after_first_slash p' = ps + 1
              /\ psm_after_path p' = nskipn pe (ser u) /\ psm_old_pos p' = pe /\ PathInv ps s0 good (ser (psm_url p'))) as (F1 & F2 & F3 & F4 & F5).
      { assert (forall x, PathInv ps s0 good x ->
                  let r := psm_with p x in
                  psm_url r = set_ser u (ser (psm_url r)) /\ after_first_slash r = ps + 1
                  /\ psm_after_path r = nskipn pe (ser u) /\ psm_old_pos r = pe /\ PathInv ps s0 good (ser (psm_url r))) as Hw.
        { intros x Ix. unfold psm_with. cbn [psm_url after_first_slash psm_after_path psm_old_pos ser set_ser].
          splits; try assumption. rewrite E1. reflexivity. }
        assert (forall segs s', psm_extend dbg p segs = Some s' ->
                  psm_url s' = set_ser u (ser (psm_url s')) /\ after_first_slash s' = ps + 1
                  /\ psm_after_path s' = nskipn pe (ser u) /\ psm_old_pos s' = pe /\ PathInv ps s0 good (ser (psm_url s'))) as Hext.
        { intros segs s' Es. unfold psm_extend in Es. rewrite E1 in Es. rewrite (Hst _ I) in Es. cbn [bindo] in Es.
          cbn [path_start set_ser ser] in Es. fold ps in Es.
          destruct (psm_extend_loop dbg (scheme_type_of (b_scheme u)) ps (ser (psm_url p)) segs) as [s1|] eqn:El;
            cbn [bindo] in Es; [|discriminate].
          inversion Es; subst s'. apply Hw.
          exact (pathinv_extend_loop ps s0 Ls0 _ PP _ _ _ El I). }
        destruct o; cbn [psm_apply] in Eo.
        - inversion Eo; subst p'. unfold psm_clear. rewrite E2. apply Hw. unfold truncate.
          apply (pathinv_trunc ps s0 good Ls0); [exact I | lia].
        - inversion Eo; subst p'. unfold psm_pop_if_empty. rewrite E2.
          destruct (nlen (ser (psm_url p)) <=? ps + 1) eqn:El; [tauto|].
          destruct (ends_with_byte 47 (nskipn (ps + 1) (ser (psm_url p)))); [|tauto].
          apply Hw. apply (pathinv_trunc ps s0 good Ls0); [exact I | lia].
        - inversion Eo; subst p'. unfold psm_pop. rewrite E2.
          destruct (nlen (ser (psm_url p)) <=? ps + 1) eqn:El; [tauto|].
          apply Hw. unfold truncate. apply (pathinv_trunc ps s0 good Ls0); [exact I | lia].
        - unfold psm_push in Eo. exact (Hext _ _ Eo).
        - exact (Hext _ _ Eo). }
      eapply IH; eassumption. }
  destruct (Hrun ops p0 p1 Erun eq_refl eq_refl eq_refl eq_refl I0) as (R1 & R3 & R4 & (I1 & I2)).
  destruct (psm_close dbg p1) as [uf|] eqn:Ecl; cbn [bindo] in H; [|discriminate].
  inversion H; subst uf. clear H.
  unfold psm_close, restore_after_path in Ecl. rewrite R3, R4 in Ecl. rewrite R1 in Ecl.
  cbn [ser set_ser query_start fragment_start] in Ecl.
  set (x1 := ser (psm_url p1)) in *.
  assert (match query_start u with Some i => pe <= i | None => True end) as Gq.
  { unfold pe, path_end. destruct (query_start u); [lia | exact I]. }
  assert (match fragment_start u with Some i => pe <= i | None => True end) as Gf.
  { pose proof (wf_qf_facts u W) as QF. pose proof (qf_qf QF) as Q3. pose proof (qf_f QF) as Q2. unfold pe, path_end.
    destruct (query_start u), (fragment_start u); try exact I; lia. }
  rewrite !adjust_opt_ok in Ecl by assumption. cbn [bindo] in Ecl.
  set (P := nskipn ps x1).
  assert (x1 = s0 ++ P) as Ex1 by (unfold P; rewrite <- I1; symmetry; apply nfirstn_nskipn).
  exists P. split; [|exact I2].
  inversion Ecl. unfold with_path. fold pe ps. rewrite Ex1. rewrite nlen_app, Ls0. rewrite <- app_assoc. reflexivity.
Qed.

End Sessions.

Section SessPQ.
Variable dbg : bool.

Lemma session_pq u ops u' : wf_b u = true ->
  byte_eqb (ser u) (scheme_end u + 1) 47 = true ->
  forallb pq (piece u (path_start u) (path_end u)) = true ->
  path_segments_session dbg u ops = Some (u', SOk) ->
  exists P, u' = with_path u P /\ forallb pq P = true.
Proof.
  intros W Hsl. apply (session_inv dbg pq eq_refl u ops u' W Hsl).
  intros ser l s' hh' rem. apply pinvq_parse_path.
  apply nlen_nfirstn. pose proof (path_start_le_len u W). lia.
Qed.

Lemma with_path_inj u P P' : with_path u P = with_path u P' -> P = P'.
Proof.
  intros E. apply (f_equal ser) in E. unfold with_path in E. cbn [ser] in E.
  apply app_inv_head in E. apply app_inv_tail in E. exact E.
Qed.

(* the path of a record that is not cannot-be-a-base, from comp_ok *)
Lemma comp_ok_path_pq u : wf_b u = true -> comp_ok dbg u -> byte_eqb (ser u) (scheme_end u + 1) 47 = true ->
  forallb pq (piece u (path_start u) (path_end u)) = true.
Proof.
  intros W K Hsl. assert (cannot_be_a_base u = Some false) as C by (rewrite (cannot_be_a_base_eval u W), Hsl; reflexivity).
  destruct K as (_ & _ & Kp & _).
  destruct (hier_path_head u _ W C (path_eval u W)) as [E|(r & E)].
  - cbn [pidx] in E. fold (path_end u) in E. unfold path_end in *. rewrite E. reflexivity.
  - apply free_pq. apply (Kp _ r); [rewrite (path_eval u W); reflexivity | exact E].
Qed.

(* a session outside the excluded classes: the record differs from u in the path alone *)
Lemma session_result u ops u' : wfh u -> Forall psm_op_usv ops -> path_gate u u' ->
  path_segments_session dbg u ops = Some (u', SOk) ->
  byte_eqb (ser u) (scheme_end u + 1) 47 = true /\ exists P, u' = with_path u P /\ path_result dbg u u' P.
Proof.
  intros [W HT] Hops G H. unfold path_gate in G.
  destruct (path_layouts u W) as [Ha|[NA|[Ho|M]]].
  - destruct (auth_path_head u W Ha) as [Hsl Hhead]. split; [exact Hsl|].
    destruct (path_segments_session_eval dbg u ops u' W Hsl Hhead Hops H) as (P & EP & HP1 & HP2).
    exists P. split; [exact EP|]. subst u'. unfold path_result. splits.
    + apply wp_wf; assumption.
    + apply wp_host_text_ok; assumption.
    + apply wp_front; assumption.
    + apply wp_query; assumption.
    + apply wp_fragment; assumption.
    + apply wp_path; assumption.
  - pose proof NA as (Ha & Hsl & Hnm). rewrite Ha in G. split; [exact Hsl|].
    assert (is_opaque_b u = false) as Ho by (unfold is_opaque_b; rewrite Hsl; reflexivity). rewrite Ho in G.
    replace (path_start u =? scheme_end u + 3) with false in G by lia.
    assert (path_end u = path_start u \/ byte_eqb (ser u) (path_start u) 47 = true) as Hhead
      by (right; rewrite Hnm; exact Hsl).
    destruct (path_segments_session_eval dbg u ops u' W Hsl Hhead Hops H) as (P & EP & HP).
    exists P. split; [exact EP|]. subst u'. exact (proj1 (plain_result dbg u P W Ha Hnm (proj1 HP)) G).
  - (* opaque path: the session is refused *)
    exfalso. unfold path_segments_session, path_segments_mut in H. rewrite (cannot_be_a_base_eval u W) in H.
    unfold is_opaque_b in Ho. rewrite Ho in H. cbn [bindo] in H. discriminate.
  - pose proof M as [Ha Em]. destruct (marker_heads u W M) as (Hsl & Hhd & _). rewrite Ha in G. split; [exact Hsl|].
    assert (is_opaque_b u = false) as Ho by (unfold is_opaque_b; rewrite Hsl; reflexivity). rewrite Ho in G.
    replace (path_start u =? scheme_end u + 3) with true in G by lia.
    destruct (path_segments_session_eval dbg u ops u' W Hsl (or_intror Hhd) Hops H) as (P & EP & HP).
    exists P. split; [exact EP|]. subst u'. exact (proj1 (marker_result dbg u P W Ha Em (proj1 HP)) G).
Qed.

Theorem session_cinv u ops u' st : CInv dbg u -> Forall psm_op_usv ops -> path_gate u u' ->
  path_segments_session dbg u ops = Some (u', st) -> CInv dbg u'.
Proof.
  intros [[W HT] K] Hops G H.
  destruct st; [|rewrite (path_segments_session_atomic dbg u ops u' _ H) by discriminate; split; [split|]; assumption ..].
  destruct (session_result u ops u' (conj W HT) Hops G H) as (Hsl & P & EP & R).
  apply (path_result_cinv dbg u u' P K R). intros r _. apply pq_free'.
  destruct (session_pq u ops u' W Hsl (comp_ok_path_pq u W K Hsl) H) as (P' & EP' & HP').
  rewrite EP in EP'. apply with_path_inj in EP'. subst P'. exact HP'.
Qed.

(* 2. quirks set_pathname *)
(* it is Url::set_path with the value, or with '/' in front of it; nothing happens on an opaque path *)
Lemma q_set_pathname_as_set_path u v u' : wf_b u = true -> usv_list v -> q_set_pathname dbg u v = Some u' ->
  u' = u \/ (is_opaque_b u = false /\ exists p, usv_list p /\ set_path dbg u p = Some u').
Proof.
  intros W Hv H. unfold q_set_pathname in H.
  rewrite (cannot_be_a_base_eval u W) in H. cbn [bindo] in H.
  destruct (byte_eqb (ser u) (scheme_end u + 1) 47) eqn:Hsl; cbn [negb] in H; [|inversion H; subst; left; reflexivity].
  right. split; [unfold is_opaque_b; rewrite Hsl; reflexivity|].
  destruct (u_scheme_type u) as [st|]; cbn [bindo] in H; [|discriminate].
  assert (usv_list (47 :: v)) as Hv' by (constructor; [unfold is_usv; lia | exact Hv]).
  destruct (match v with 47 :: _ => true | _ => false end || st_is_special st && match v with 92 :: _ => true | _ => false end).
  - exists v. split; assumption.
  - destruct (st_is_special st || negb match v with [] => true | _ => false end || negb (has_host u)).
    + exists (47 :: v). split; assumption.
    + exists v. split; assumption.
Qed.

Theorem q_set_pathname_cinv u v u' : CInv dbg u -> usv_list v -> auth_end_ok u -> path_gate u u' ->
  q_set_pathname dbg u v = Some u' -> CInv dbg u'.
Proof.
  intros K Hv Hx G H. pose proof K as [[W _] _].
  destruct (q_set_pathname_as_set_path u v u' W Hv H) as [->|(Ho & p & Hp & E)]; [exact K|].
  apply (set_path_cinv dbg u p u' K Hp Hx); [|exact G | exact E]. intros Ho'. rewrite Ho in Ho'. discriminate.
Qed.

(* 3. quirks set_port: it IS Url::set_port with the parsed number *)
Lemma q_set_port_as_set_port u v u' st : q_set_port dbg u v = Some (u', st) ->
  (u' = u /\ st <> SOk) \/ exists p, port_arg_ok p /\ set_port dbg u p = Some (u', st).
Proof.
  unfold q_set_port, set_port. intros H.
  destruct (cannot_have_credentials_or_port u) as [c|] eqn:Ec; cbn [bindo] in H |- *; [|discriminate].
  destruct c; [inversion H; subst; left; split; [reflexivity | discriminate]|].
  destruct (scheme u) as [sc|] eqn:Esc; cbn [bindo] in H |- *; [|discriminate].
  destruct (parse_port CSetter (default_port sc) (input_new_no_trim v)) as [[p r]| |] eqn:Ep; [| |discriminate].
  - right. exists p. split; [exact (parse_port_le _ _ _ _ _ Ep)|].
    assert (match p with Some x => if opt_eqb p (default_port sc) then None else Some x | None => None end = p) as E.
    { destruct p as [x|]; [|reflexivity]. unfold parse_port in Ep.
      destruct (parse_port_loop CSetter (input_new_no_trim v) 0 false) as [[[p0 any] rm]| |]; cbn [pbind] in Ep; try discriminate.
      destruct (negb any && ctx_eqb CSetter CSetter && negb (inp_is_empty rm)); [discriminate|].
      destruct (negb any || opt_eqb (Some p0) (default_port sc)) eqn:Ed; inversion Ep; subst.
      apply orb_false_iff in Ed. destruct Ed as [_ Ed]. rewrite Ed. reflexivity. }
    rewrite E. exact H.
  - inversion H; subst. left. split; [reflexivity | discriminate].
Qed.

Theorem q_set_port_cinv u v u' st : CInv dbg u -> q_set_port dbg u v = Some (u', st) -> CInv dbg u'.
Proof.
  intros K H. destruct (q_set_port_as_set_port u v u' st H) as [[-> _]|(p & Hp & E)]; [exact K|].
  exact (set_port_cinv dbg u p u' st K Hp E).
Qed.

End SessPQ.

(* 4. hosts the parser returns *)
Section Hosts.
Variable dbg : bool.
Variable hp hpo : list N -> result host.
Variable hd : host -> list N.
Hypothesis HW : HostWf hp hpo hd.

Lemma origin_disp_ok h : host_origin hp hpo h -> host_disp_ok hd h.
Proof.
  destruct HW as (W1 & W2 & W3). intros Ho. unfold host_disp_ok.
  destruct (host_eq_dec_empty h) as [->|Hne]; [cbn [hi_of_host]; exact W3|].
  assert (host_text_wf (hd h)) as (T1 & T2 & T3 & _).
  { destruct Ho as [E|[[s E]|[s E]]]; [contradiction | exact (W1 s h E Hne) | exact (W2 s h E Hne)]. }
  assert (exists c r, hd h = c :: r /\ c <> 58 /\ c <> 64) as X.
  { destruct (hd h) as [|c r]; [contradiction|]. exists c, r. cbn in T2, T3. split; [reflexivity|]. split; congruence. }
  destruct h as [[|c d]|a|p]; try exact X. contradiction.
Qed.

Lemma class_disp_ok u h : h = HDomain [] \/ class_host hp hpo u h -> host_disp_ok hd h.
Proof. intros H. exact (origin_disp_ok h (class_host_origin hp hpo u h H)). Qed.

(* Url::set_host(Some _) with the hypothesis on parser-returned hosts only *)
Theorem set_host_some_cinv2 u x u' st : CInv dbg u ->
  (has_authority_b u = false -> path_start u = scheme_end u + 1) ->
  (has_authority_b u = true -> hosti u' = HI_None -> port u = None) ->
  set_host dbg hp hpo hd u (Some x) = Some (u', st) -> CInv dbg u'.
Proof using HW.
  intros K X2 X1 H. pose proof K as [[W _] Kc].
  destruct (set_host_some_result dbg hp hpo hd u x u' st W (fun h Hh => class_disp_ok u h (or_intror Hh)) X2 X1 H)
    as [->|(h & _ & Hp)]; [exact K | exact (host_set_post_cinv dbg hd u u' h Kc Hp)].
Qed.

(* the quirks host setters: nothing happens, or set_host_internal writes the empty host (file scheme, empty value) or a
   host that parse_host returns for the scheme class; quirks set_host may add a port *)
Lemma q_set_hostname_result u v u' st : wf_b u = true ->
  (has_authority_b u = false -> path_start u = scheme_end u + 1) ->
  (has_authority_b u = true -> hosti u' = HI_None -> port u = None) ->
  q_set_hostname dbg hp hpo hd u v = Some (u', st) ->
  u' = u \/ exists h, (h = HDomain [] \/ class_host hp hpo u h) /\ host_set_post dbg hd u u' h.
Proof using HW.
  intros W X2 X1 H. unfold q_set_hostname in H.
  rewrite (cannot_be_a_base_eval u W) in H. cbn [bindo] in H.
  destruct (byte_eqb (ser u) (scheme_end u + 1) 47) eqn:Hsl; cbn [negb] in H; [|inversion H; subst; left; reflexivity].
  rewrite (scheme_eval u W) in H. cbn [bindo] in H. cbv zeta in H.
  change (piece u (pidx u BeforeScheme) (pidx u AfterScheme)) with (piece u 0 (scheme_end u)) in H.
  match type of H with context [scheme_type_of ?sc] => replace sc with (b_scheme u) in H
    by (unfold piece, b_scheme; rewrite N.sub_0_r, nskipn_0; reflexivity) end.
  destruct (scheme_type_eqb (scheme_type_of (b_scheme u)) STFile && match v with [] => true | _ => false end).
  { ob H u1 Hu1. inversion H; subst. right. exists (HDomain []). split; [left; reflexivity|].
    exact (shi_post dbg hd u _ u' W (class_disp_ok u _ (or_introl eq_refl)) Hsl X2 X1 Hu1). }
  ob H r Hr. destruct r as [[h remaining]|]; [|inversion H; subst; left; reflexivity].
  apply pres_ok_some, parse_host_class in Hr.
  ob H reject Hrej. destruct reject; [inversion H; subst; left; reflexivity|].
  ob H u1 Hu1. inversion H; subst. right. exists h. split; [exact Hr|].
  exact (shi_post dbg hd u h u' W (class_disp_ok u h Hr) Hsl X2 X1 Hu1).
Qed.

Lemma q_set_host_result u v u' st : wf_b u = true ->
  (has_authority_b u = false -> path_start u = scheme_end u + 1) ->
  (has_authority_b u = true -> hosti u' = HI_None -> port u = None) ->
  q_set_host dbg hp hpo hd u v = Some (u', st) ->
  u' = u \/ exists h, (h = HDomain [] \/ class_host hp hpo u h)
                   /\ (host_set_post dbg hd u u' h \/ exists np, host_port_post dbg hd u u' h np).
Proof using HW.
  intros W X2 X1 H. unfold q_set_host in H.
  rewrite (cannot_be_a_base_eval u W) in H. cbn [bindo] in H.
  destruct (byte_eqb (ser u) (scheme_end u + 1) 47) eqn:Hsl; cbn [negb] in H; [|inversion H; subst; left; reflexivity].
  rewrite (scheme_eval u W) in H. cbn [bindo] in H. cbv zeta in H.
  change (piece u (pidx u BeforeScheme) (pidx u AfterScheme)) with (piece u 0 (scheme_end u)) in H.
  assert (piece u 0 (scheme_end u) = b_scheme u) as Esc by (unfold piece, b_scheme; rewrite N.sub_0_r, nskipn_0; reflexivity).
  rewrite Esc in H.
  destruct (scheme_type_eqb (scheme_type_of (b_scheme u)) STFile && match v with [] => true | _ => false end).
  { ob H u1 Hu1. inversion H; subst. right. exists (HDomain []). split; [left; reflexivity|]. left.
    exact (shi_post dbg hd u _ u' W (class_disp_ok u _ (or_introl eq_refl)) Hsl X2 X1 Hu1). }
  ob H r Hr. destruct r as [[h remaining]|]; [|inversion H; subst; left; reflexivity].
  apply pres_ok_some, parse_host_class in Hr.
  ob H opp Hop. ob H un Hun.
  match type of H with (if ?c then _ else _) = _ => destruct c eqn:Ec end; [inversion H; subst; left; reflexivity|].
  ob H u1 Hu1. inversion H; subst u1 st. clear H. right. exists h. split; [exact Hr|].
  destruct opp as [np|]; [|left; exact (shi_post dbg hd u h u' W (class_disp_ok u h Hr) Hsl X2 X1 Hu1)].
  right. exists np.
  apply (set_host_internal_port_post dbg hd u h np u' W (class_disp_ok u h Hr)); try assumption.
  - destruct (inp_split_prefix_char 58 remaining) as [rem|]; [|inversion Hop; subst; exact I].
    destruct (inp_is_empty rem); [inversion Hop; subst; exact I|].
    destruct (parse_port CSetter (default_port (b_scheme u)) rem) as [[p r0]|e|] eqn:Epp; inversion Hop; subst; try exact I.
    exact (parse_port_le _ _ _ _ _ Epp).
  - intros Hn. apply hi_of_host_none in Hn. subst h. cbn [andb] in Ec.
    apply orb_false_iff in Ec. destruct Ec as [Ec E3]. apply orb_false_iff in Ec. destruct Ec as [_ E2].
    split; [destruct np; [discriminate | reflexivity]|]. intros _. destruct (port u); [discriminate | reflexivity].
Qed.

Lemma host_port_post_cinv u u' h np : comp_ok dbg u -> host_port_post dbg hd u u' h np -> CInv dbg u'.
Proof using.
  intros K (W' & HT' & _ & Un & Pw & _ & (B1 & B2 & B3) & _). split; [split; assumption|].
  exact (comp_ok_same dbg u u' Un Pw B1 B2 B3 K).
Qed.

Theorem q_set_hostname_cinv u v u' st : CInv dbg u ->
  (has_authority_b u = false -> path_start u = scheme_end u + 1) ->
  (has_authority_b u = true -> hosti u' = HI_None -> port u = None) ->
  q_set_hostname dbg hp hpo hd u v = Some (u', st) -> CInv dbg u'.
Proof using HW.
  intros K X2 X1 H. pose proof K as [[W _] Kc].
  destruct (q_set_hostname_result u v u' st W X2 X1 H) as [->|(h & _ & Hp)]; [exact K|].
  exact (host_set_post_cinv dbg hd u u' h Kc Hp).
Qed.

(* quirks set_host, with or without a port part *)
Theorem q_set_host_cinv3 u v u' st : CInv dbg u ->
  (has_authority_b u = false -> path_start u = scheme_end u + 1) ->
  (has_authority_b u = true -> hosti u' = HI_None -> port u = None) ->
  q_set_host dbg hp hpo hd u v = Some (u', st) -> CInv dbg u'.
Proof using HW.
  intros K X2 X1 H. pose proof K as [[W _] Kc].
  destruct (q_set_host_result u v u' st W X2 X1 H) as [->|(h & _ & [Hp|(np & Hp)])]; [exact K | |].
  - exact (host_set_post_cinv dbg hd u u' h Kc Hp).
  - exact (host_port_post_cinv u u' h np Kc Hp).
Qed.

(* the condition under which quirks set_host was first proved: the value carries no new port (no ':' part that parses as
   a port), computed as the setter computes it *)
Definition q_host_keeps_port (u : url) (v : list N) : Prop :=
  forall sc h remaining rem p r,
    scheme u = Some sc ->
    parse_host hp hpo (scheme_type_of sc) (input_new_no_trim v) = POk (h, remaining) ->
    inp_split_prefix_char 58 remaining = Some rem -> inp_is_empty rem = false ->
    parse_port CSetter (default_port sc) rem <> POk (p, r).

Theorem q_set_host_cinv u v u' st : CInv dbg u -> q_host_keeps_port u v ->
  (has_authority_b u = false -> path_start u = scheme_end u + 1) ->
  (has_authority_b u = true -> hosti u' = HI_None -> port u = None) ->
  q_set_host dbg hp hpo hd u v = Some (u', st) -> CInv dbg u'.
Proof using HW.
  intros K _. exact (q_set_host_cinv3 u v u' st K).
Qed.

End Hosts.
