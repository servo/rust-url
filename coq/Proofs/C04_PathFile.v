(* Proofs/C04_PathFile.v - the path states of the parser reach none of their panic sites (pop_path's unwrap, the
   debug_assert and the slice of finish_segment), for ANY scheme type, file included, any context, every input and
   every serialization prefix (loop_inv).  Two kinds of states:
   seg_inv (the byte in front of the current segment is '/') and bad_seg (after the drive-letter arm of the
   loop, which moves segment_start into the middle of "C:/": the segment then starts with ':' or with a
   letter and has at least three bytes, so it is neither a dot segment nor a drive letter and
   finish_segment leaves the serialization alone).  The refusals of pop_path / shorten_path to remove a
   drive letter are harmless: finish_segment re-appends the '/'. *)
From RU Require Import Base.Prelude Base.Utf8 Model.AsciiSet Gen.Tables Model.PercentEncoding
  Model.HostT Model.UrlRecord Model.Parser
  Proofs.ListN Proofs.C06_List Proofs.C02_Parts Proofs.C06_PathParser Proofs.C01_EqDots Proofs.C04_PathTotal.

Lemma not_dot_head c t : c <> 46 -> c <> 37 -> is_double_dot (c :: t) = false /\ is_single_dot (c :: t) = false.
Proof.
  intros H1 H2. rewrite is_double_dot_eq, is_single_dot_eq.
  assert ((c =? 46) = false) as E1 by (apply N.eqb_neq; exact H1).
  assert (forall x y, is_pct2e c x y = false) as E2.
  { intros x y. unfold is_pct2e. replace (c =? 37) with false by (symmetry; apply N.eqb_neq; exact H2). reflexivity. }
  split.
  - destruct t as [|b [|d [|e [|f [|g [|h r]]]]]]; cbn [is_double_dot']; rewrite ?E1, ?E2; reflexivity.
  - destruct t as [|b [|d [|e r]]]; cbn [is_single_dot']; rewrite ?E1, ?E2; reflexivity.
Qed.

Lemma nwdl_inv s : is_normalized_wdl s = true -> exists a, s = [a; 58] /\ is_alpha a = true.
Proof.
  unfold is_normalized_wdl, is_wdl, starts_with_wdl. destruct s as [|a [|b [|c r]]]; cbn; try discriminate;
    rewrite ?andb_false_r; try discriminate.
  intros H. apply andb_true_iff in H. destruct H as [H1 H2]. apply N.eqb_eq in H2. subst b.
  exists a. split; [reflexivity|]. rewrite andb_true_r in H1. apply andb_true_iff in H1. tauto.
Qed.

(* the serialization in the drive-letter arm of the loop: the path is exactly "/C:" *)
Lemma wdl_path_shape ps ser : is_normalized_wdl (nskipn (ps + 1) ser) = true ->
  exists a, is_alpha a = true /\ nlen ser = ps + 3 /\ nnth ser (ps + 1) = Some a /\ nnth ser (ps + 2) = Some 58.
Proof.
  intros H. destruct (nwdl_inv _ H) as (a & Ea & Hal). exists a. split; [exact Hal|].
  pose proof (nlen_nskipn (ps + 1) ser) as Hl. rewrite Ea in Hl. change (nlen [a; 58]) with 2 in Hl.
  pose proof (nnth_nskipn ser (ps + 1) 0) as H0. pose proof (nnth_nskipn ser (ps + 1) 1) as H1.
  rewrite Ea in H0, H1. rewrite N.add_0_r in H0. replace (ps + 1 + 1) with (ps + 2) in H1 by lia.
  split; [lia|]. split; symmetry; assumption.
Qed.

Section PathAny.
Variables (dbg : bool) (st : scheme_type) (ps k : N).
Hypothesis Hk : k <= ps + 1.

Definition bad_seg (ser : list N) (ss : N) : Prop :=
  ps <= ss /\ k <= ss /\ ps + 4 <= nlen ser
  /\ exists c0, nnth ser ss = Some c0 /\ c0 <> 46 /\ c0 <> 37 /\ (is_alpha c0 = true -> ss + 3 <= nlen ser).

Lemma bad_seg_app ser ss x : bad_seg ser ss -> bad_seg (ser ++ x) ss.
Proof using. clear Hk.
  intros (H1 & H2 & H3 & c0 & H4 & H5 & H6 & H7). pose proof (nnth_lt _ _ _ H4) as L.
  repeat split; try assumption; [rewrite nlen_app; lia|].
  exists c0. rewrite nnth_app_lt by exact L. repeat split; try assumption. intros Ha. rewrite nlen_app. specialize (H7 Ha). lia.
Qed.

Lemma shorten_any s2 : nlen s2 = ps \/ (exists i, ps <= i /\ nnth s2 i = Some 47) ->
  exists n, shorten_path st ps s2 = POk (nfirstn n s2) /\ (ps + 1 <= n \/ nlen s2 <= n).
Proof using. clear Hk.
  intros H. assert (exists n, POk s2 = POk (nfirstn n s2) /\ (ps + 1 <= n \/ nlen s2 <= n)) as Hsame.
  { exists (nlen s2). split; [rewrite nfirstn_all by lia; reflexivity | right; lia]. }
  unfold shorten_path. destruct (nlen s2 =? ps) eqn:E; [exact Hsame|].
  destruct (st_is_file st && is_normalized_wdl (nskipn ps s2)); [exact Hsame|].
  destruct H as [H|(i & Hi & Hn)]; [lia|].
  pose proof (nnth_lt _ _ _ Hn) as Hlt. unfold pop_path. replace (ps <? nlen s2) with true by lia.
  assert (nnth (nskipn ps s2) (i - ps) = Some 47) as Hn' by (rewrite nnth_nskipn; replace (ps + (i - ps)) with i by lia; exact Hn).
  destruct (rfind_some 47 _ _ Hn') as [sp Hsp]. rewrite Hsp.
  destruct (st_is_file st && is_normalized_wdl (nskipn (ps + sp + 1) s2)); [exact Hsame|].
  exists (ps + sp + 1). split; [reflexivity | left; lia].
Qed.

Lemma dd_any ser ss : seg_inv ps k ser ss ->
  let s1 := truncate ser ss in
  let s2 := if ends_with_byte 47 s1 && last_slash_can_be_removed s1 ps then nfirstn (nlen s1 - 1) s1 else s1 in
  exists n, shorten_path st ps s2 = POk (nfirstn n ser) /\ ps <= n /\ k <= n /\ n <= ss.
Proof using Hk.
  intros (H1 & H2 & H3 & H4 & H5). cbv zeta. unfold truncate.
  pose proof (nlen_nfirstn ss ser H4) as L.
  destruct (seg_inv_trunc ps k ser ss H1 H2 H3 H4 H5) as [_ He]. rewrite He. cbn [andb].
  destruct (last_slash_can_be_removed (nfirstn ss ser) ps) eqn:EL.
  - unfold last_slash_can_be_removed in EL. rewrite L in *.
    destruct (rfind 47 (nfirstn (ss - 1) (nfirstn ss ser))) as [p|] eqn:Ep; [|discriminate].
    apply andb_true_iff in EL. destruct EL as [EL _].
    pose proof (rfind_spec _ _ _ Ep) as Hp. pose proof (nnth_lt _ _ _ Hp) as Hpl.
    rewrite nfirstn_nfirstn in * by lia.
    assert (nlen (nfirstn (ss - 1) ser) = ss - 1) as L2 by (apply nlen_nfirstn; lia).
    destruct (shorten_any (nfirstn (ss - 1) ser)) as (n & En & Hn).
    { right. exists p. split; [lia | exact Hp]. }
    rewrite En. destruct (N.le_gt_cases n (ss - 1)) as [G|G].
    + rewrite nfirstn_nfirstn by lia. exists n. split; [reflexivity|]. lia.
    + rewrite nfirstn_all by lia. exists (ss - 1). split; [reflexivity|]. lia.
  - assert (nlen (nfirstn ss ser) = ps \/ (exists i, ps <= i /\ nnth (nfirstn ss ser) i = Some 47)) as Hpre.
    { destruct (N.eq_dec ss ps) as [E|E]; [left; lia|]. right. exists (ss - 1). split; [lia|].
      rewrite nnth_nfirstn by lia. exact H5. }
    destruct (shorten_any (nfirstn ss ser) Hpre) as (n & En & Hn). rewrite En.
    destruct (N.le_gt_cases n ss) as [G|G].
    + rewrite nfirstn_nfirstn by lia. exists n. split; [reflexivity|]. lia.
    + rewrite nfirstn_all by lia. exists ss. split; [reflexivity|]. lia.
Qed.

Lemma finish_any ser ss ews hh : seg_inv ps k ser ss ->
  (ews = true -> ss + 1 <= nlen ser /\ ends_with_byte 47 ser = true) ->
  exists s' hh', finish_segment dbg st ps ser ss ews hh = POk (s', hh') /\ agree_pre k ser s'
                 /\ (ews = true -> seg_inv ps k s' (nlen s')).
Proof using Hk.
  intros I Hews. pose proof I as (H1 & H2 & H3 & H4 & H5). unfold finish_segment.
  rewrite slice_o_some; [| destruct ews; [destruct (Hews eq_refl); lia | lia] | destruct ews; lia].
  cbn [of_option pbind].
  set (seg := nfirstn _ _). destruct (is_double_dot seg).
  - assert ((if dbg then match (if 1 <=? ss then nnth ser (ss - 1) else None) with
                         | Some b => passert (b =? 47) | None => PPanic end else POk tt) = POk tt) as Ed.
    { destruct dbg; [|reflexivity]. replace (1 <=? ss) with true by lia. rewrite H5. reflexivity. }
    rewrite Ed. cbn [pbind].
    destruct (dd_any ser ss I) as (n & En & N1 & N2 & N3). cbv zeta in En. rewrite En. cbn [pbind].
    assert (nlen (nfirstn n ser) = n) as Ln by (apply nlen_nfirstn; lia).
    destruct (ends_with_byte 47 (nfirstn n ser)) eqn:E3.
    + rewrite andb_false_r. exists (nfirstn n ser), hh. split; [reflexivity|].
      split; [apply agree_pre_nfirstn_ge; exact N2|]. intros _.
      apply ends_with_byte_nnth in E3. rewrite Ln in *. destruct E3 as [E3 E4]. repeat split; try lia. exact E4.
    + rewrite andb_true_r. destruct ews.
      * exists (nfirstn n ser ++ [47]), hh. split; [reflexivity|].
        split; [eapply agree_pre_trans; [apply agree_pre_nfirstn_ge; exact N2 | apply agree_pre_app_le; lia]|].
        intros _. apply seg_inv_snoc; lia.
      * exists (nfirstn n ser), hh. split; [reflexivity|]. split; [apply agree_pre_nfirstn_ge; exact N2 | discriminate].
  - destruct (is_single_dot seg).
    + unfold truncate. destruct (seg_inv_trunc ps k ser ss H1 H2 H3 H4 H5) as [I3 E3]. rewrite E3.
      exists (nfirstn ss ser), hh. split; [reflexivity|]. split; [apply agree_pre_nfirstn_ge; exact H2|]. intros _. exact I3.
    + destruct (st_is_file st && (ss =? ps + 1) && is_wdl seg) eqn:Ew.
      * apply andb_true_iff in Ew. destruct Ew as [_ Ew]. destruct (is_wdl_head seg Ew) as (c & r & -> & _).
        unfold truncate. assert (nlen (nfirstn ss ser) = ss) as Ls by (apply nlen_nfirstn; lia).
        eexists. exists false. split; [reflexivity|].
        split; [eapply agree_pre_trans; [apply agree_pre_nfirstn_ge; exact H2 | apply agree_pre_app_le; lia]|].
        intros ->. change ([c; 58] ++ [47]) with ([c; 58] ++ [47]). rewrite app_assoc.
        apply seg_inv_snoc; rewrite nlen_app, Ls; change (nlen [c; 58]) with 2; lia.
      * exists ser, hh. split; [reflexivity|]. split; [reflexivity|].
        intros E. destruct (Hews E) as [G1 G2]. apply ends_with_byte_nnth in G2. destruct G2 as [G2 G3].
        repeat split; try lia. exact G3.
Qed.

(* a segment that starts with a character other than '.' / '%' and, if it starts with a letter, has at
   least three bytes: nothing happens *)
Lemma finish_bad ser ss (ews : bool) hh c0 : nnth ser ss = Some c0 -> c0 <> 46 -> c0 <> 37 ->
  (if ews then ss + 2 <= nlen ser else ss + 1 <= nlen ser) ->
  (is_alpha c0 = true -> if ews then ss + 4 <= nlen ser else ss + 3 <= nlen ser) ->
  finish_segment dbg st ps ser ss ews hh = POk (ser, hh).
Proof using. clear Hk.
  intros Hn H1 H2 HL Ha. unfold finish_segment.
  rewrite slice_o_some by (destruct ews; lia). cbn [of_option pbind].
  rewrite (nskipn_cons_of_nnth _ _ _ Hn).
  set (m := (if ews then nlen ser - 1 else nlen ser) - ss).
  assert (1 <= m) as Hm by (subst m; destruct ews; lia).
  assert (nfirstn m (c0 :: nskipn (ss + 1) ser) = c0 :: nfirstn (m - 1) (nskipn (ss + 1) ser)) as Eseg.
  { replace m with (1 + (m - 1)) at 1 by lia. unfold nfirstn. rewrite N2Nat.inj_add. reflexivity. }
  rewrite Eseg.
  destruct (not_dot_head c0 (nfirstn (m - 1) (nskipn (ss + 1) ser)) H1 H2) as [D1 D2]. rewrite D1, D2.
  assert (is_wdl (c0 :: nfirstn (m - 1) (nskipn (ss + 1) ser)) = false) as Ew.
  { unfold is_wdl. destruct (is_alpha c0) eqn:Eal.
    - specialize (Ha eq_refl).
      assert (nlen (nfirstn (m - 1) (nskipn (ss + 1) ser)) = m - 1) as Lt.
      { apply nlen_nfirstn. rewrite nlen_nskipn. subst m. destruct ews; lia. }
      assert (2 <= m - 1) as Hm2 by (subst m; destruct ews; lia).
      unfold nlen in Lt. cbn [length].
      replace (S (length (nfirstn (m - 1) (nskipn (ss + 1) ser))) =? 2)%nat with false; [reflexivity|].
      symmetry. apply Nat.eqb_neq. lia.
    - unfold starts_with_wdl. destruct (nfirstn (m - 1) (nskipn (ss + 1) ser)) as [|b r]; [apply andb_false_r|].
      rewrite Eal. cbn [andb]. apply andb_false_r. }
  rewrite Ew. rewrite andb_false_r. reflexivity.
Qed.

Definition path_inv (ser : list N) (ss : N) : Prop := seg_inv ps k ser ss \/ bad_seg ser ss.

Lemma path_inv_app ser ss x : path_inv ser ss -> path_inv (ser ++ x) ss.
Proof using. clear Hk. intros [H|H]; [left; apply seg_inv_app | right; apply bad_seg_app]; exact H. Qed.

Lemma finish_inv_any base ss (ews : bool) hh : path_inv base ss ->
  let ser := if ews then base ++ [47] else base in
  exists s' hh', finish_segment dbg st ps ser ss ews hh = POk (s', hh') /\ agree_pre k ser s'
                 /\ (ews = true -> seg_inv ps k s' (nlen s')).
Proof using Hk.
  intros [I|B]; cbv zeta.
  - apply finish_any.
    + destruct ews; [apply seg_inv_app|]; exact I.
    + intros ->. destruct I as (_ & _ & _ & I4 & _).
      split; [rewrite nlen_app; change (nlen [47]) with 1; lia | apply ends_with_byte_snoc].
  - destruct B as (B1 & B2 & B3 & c0 & B4 & B5 & B6 & B7). pose proof (nnth_lt _ _ _ B4) as L.
    destruct ews.
    + assert (nnth (base ++ [47]) ss = Some c0) as Hn by (rewrite nnth_app_lt by exact L; exact B4).
      rewrite (finish_bad (base ++ [47]) ss true hh c0 Hn B5 B6).
      * exists (base ++ [47]), hh. split; [reflexivity|]. split; [reflexivity|]. intros _.
        apply seg_inv_snoc; lia.
      * rewrite nlen_app. change (nlen [47]) with 1. lia.
      * intros Ha. specialize (B7 Ha). rewrite nlen_app. change (nlen [47]) with 1. lia.
    + rewrite (finish_bad base ss false hh c0 B4 B5 B6 ltac:(cbv iota; lia) B7).
      exists base, hh. split; [reflexivity|]. split; [reflexivity | discriminate].
Qed.

Lemma path_inv_k ser ss : path_inv ser ss -> k <= nlen ser.
Proof using. clear Hk.
  intros [(_ & H2 & _ & H4 & _)|(_ & H2 & _ & c0 & H4 & _)]; [lia|]. apply nnth_lt in H4. lia.
Qed.

(* the result of the path state: the file fix-up of a serialization that keeps the first k bytes *)
Definition path_res (ser : list N) (X : pres (list N * bool * list N)) : Prop :=
  exists s2 hh' rem, X = POk (file_path_fixup st ps s2, hh', rem) /\ agree_pre k ser s2 /\ rem_ok rem.

Lemma path_res_pre ser ser0 X : agree_pre k ser0 ser -> path_res ser X -> path_res ser0 X.
Proof using. clear Hk.
  intros Ha (s2 & hh' & rem & E & Ha2 & Hr). exists s2, hh', rem. split; [exact E|]. split; [|exact Hr].
  eapply agree_pre_trans; eassumption.
Qed.

(* the loop keeps path_inv, in every context: in the setter contexts '?' / '#' are ordinary characters (they are
   percent-encoded), in the path-segment-setter context '/' and '\' are too; the panic sites (pop_path's unwrap, the
   debug assertion and the slice of finish_segment) do not depend on the context *)
Theorem loop_inv ctx l : forall ser ss pend hh, path_inv ser ss -> path_res ser (parse_path_loop dbg ctx st ps l ser ss pend hh).
Proof using Hk.
  assert (forall l0 ser ss pend hh, path_inv ser ss -> rem_ok l0 ->
            path_res ser (' (s2, hh0) <~ finish_segment dbg st ps (push_pending ctx st ser pend) ss false hh ;;
                          POk (file_path_fixup st ps s2, hh0, l0))) as Hend.
  { intros l0 ser ss pend hh I Hr. destruct (push_pending_app st ctx pend ser) as [x Ex]. rewrite Ex.
    destruct (finish_inv_any (ser ++ x) ss false hh (path_inv_app ser ss x I)) as (s' & hh' & Ef & Ha & _).
    cbv zeta iota in Ef, Ha. rewrite Ef. cbn [pbind]. exists s', hh', l0. split; [reflexivity|].
    split; [|exact Hr]. pose proof (path_inv_k ser ss I).
    eapply agree_pre_trans; [apply agree_pre_app_le; lia | exact Ha]. }
  induction l as [|c r IH]; intros ser ss pend hh I.
  - cbn [parse_path_loop]. apply Hend; [exact I | exact rem_ok_nil].
  - cbn [parse_path_loop]. pose proof (path_inv_k ser ss I) as Lk.
    destruct (push_pending_app st ctx pend ser) as [x Ex].
    destruct (is_tnl c) eqn:Et.
    { rewrite Ex. eapply path_res_pre; [apply agree_pre_app_le; exact Lk|].
      apply IH. apply path_inv_app. exact I. }
    destruct (negb (ctx_eqb ctx CPathSegmentSetter) && ((c =? 47) || (c =? 92) && st_is_special st)).
    { rewrite Ex.
      destruct (finish_inv_any (ser ++ x) ss true hh (path_inv_app ser ss x I)) as (s2 & hh2 & Ef & Ha & I3).
      cbv zeta iota in Ef, Ha. rewrite Ef. cbn [pbind].
      eapply path_res_pre; [|apply IH; left; exact (I3 eq_refl)].
      eapply agree_pre_trans; [apply agree_pre_app_le; exact Lk|].
      eapply agree_pre_trans; [apply agree_pre_app_le; rewrite nlen_app; lia | exact Ha]. }
    destruct (((c =? 63) || (c =? 35)) && ctx_eqb ctx CUrlParser) eqn:Eq.
    { apply andb_true_iff in Eq. destruct Eq as [Eq _].
      apply Hend; [exact I | apply rem_ok_cons; [exact Et | exact Eq]]. }
    destruct (st_is_file st && (ps <? nlen ser) && is_normalized_wdl (nskipn (ps + 1) ser)) eqn:Ew; [|apply IH; exact I].
    (* the drive-letter arm: the path is exactly "/C:" *)
    apply andb_true_iff in Ew. destruct Ew as [Ew Ew3]. apply andb_true_iff in Ew. destruct Ew as [_ Ew2].
    destruct (wdl_path_shape ps ser Ew3) as (a & Hal & Ls & Ha1 & Ha2).
    assert (a <> 47 /\ a <> 46 /\ a <> 37) as Hane by (unfold is_alpha, is_upper, is_lower in Hal; lia).
    rewrite Ex. eapply path_res_pre; [|apply IH].
    { eapply agree_pre_trans; [apply agree_pre_app_le; exact Lk | apply agree_pre_app_le; rewrite nlen_app; lia]. }
    right. destruct I as [(I1 & I2 & I3 & I4 & I5)|(_ & _ & B3 & _)]; [|lia].
    assert (ss = ps \/ ss = ps + 1) as Hss.
    { destruct (N.eq_dec ss (ps + 2)) as [E|E]; [subst ss; replace (ps + 2 - 1) with (ps + 1) in I5 by lia; rewrite Ha1 in I5; inversion I5; lia|].
      destruct (N.eq_dec ss (ps + 3)) as [E'|E']; [subst ss; replace (ps + 3 - 1) with (ps + 2) in I5 by lia; rewrite Ha2 in I5; discriminate|].
      lia. }
    unfold bad_seg. rewrite !nlen_app. change (nlen [47]) with 1.
    split; [lia|]. split; [lia|]. split; [lia|].
    destruct Hss as [->| ->].
    + exists a. rewrite !nnth_app_lt by (rewrite ?nlen_app; lia). repeat split; try tauto. intros _. lia.
    + exists 58. replace (ps + 1 + 1) with (ps + 2) by lia. rewrite !nnth_app_lt by (rewrite ?nlen_app; lia).
      repeat split; try assumption; try lia. discriminate.
Qed.

Notation loop := (parse_path_loop dbg CUrlParser st ps).

Theorem loop_any l : forall ser ss pend hh, path_inv ser ss -> path_res ser (loop l ser ss pend hh).
Proof using Hk. exact (loop_inv CUrlParser l). Qed.

(* outside the file scheme nothing touches has_host, and there is no fix-up *)
Lemma finish_segment_hh ser ss ews hh s' hh' : st_is_file st = false ->
  finish_segment dbg st ps ser ss ews hh = POk (s', hh') -> hh' = hh.
Proof using.
  intros Hnf. unfold finish_segment. destruct (slice_o _ _ _) as [seg|]; cbn [of_option pbind]; [|discriminate].
  rewrite Hnf. cbn [andb]. destruct (is_double_dot seg); [|destruct (is_single_dot seg); intros H; inversion H; reflexivity].
  match goal with |- pbind ?x _ = _ -> _ => destruct x; cbn [pbind]; try discriminate end.
  destruct (shorten_path _ _ _); cbn [pbind]; try discriminate. intros H. inversion H. reflexivity.
Qed.

Lemma loop_hh ctx l : st_is_file st = false -> forall ser ss pend hh s' hh' rem,
  parse_path_loop dbg ctx st ps l ser ss pend hh = POk (s', hh', rem) -> hh' = hh.
Proof using.
  intros Hnf.
  assert (forall (l0 : list N) s ss hh s' hh' rem,
            (' (s2, hh0) <~ finish_segment dbg st ps s ss false hh ;; POk (file_path_fixup st ps s2, hh0, l0)) = POk (s', hh', rem) ->
            hh' = hh) as Hend.
  { intros l0 s ss hh s' hh' rem. destruct (finish_segment dbg st ps s ss false hh) as [[s2 h2]| |] eqn:Ef; cbn [pbind]; try discriminate.
    intros H. inversion H; subst. exact (finish_segment_hh _ _ _ _ _ _ Hnf Ef). }
  induction l as [|c r IH]; intros ser ss pend hh s' hh' rem; cbn [parse_path_loop]; [apply Hend|].
  destruct (is_tnl c); [apply IH|].
  destruct (negb (ctx_eqb ctx CPathSegmentSetter) && ((c =? 47) || (c =? 92) && st_is_special st)).
  { destruct (finish_segment dbg st ps _ ss true hh) as [[s2 h2]| |] eqn:Ef; cbn [pbind]; try discriminate.
    intros H. apply IH in H. rewrite H. exact (finish_segment_hh _ _ _ _ _ _ Hnf Ef). }
  destruct (((c =? 63) || (c =? 35)) && ctx_eqb ctx CUrlParser); [apply Hend|].
  rewrite Hnf. cbn [andb]. apply IH.
Qed.

Corollary loop_nofile l ser ss pend hh : st_is_file st = false -> seg_inv ps k ser ss ->
  exists s' rem, loop l ser ss pend hh = POk (s', hh, rem) /\ agree_pre k ser s' /\ rem_ok rem.
Proof using Hk.
  intros Hnf I. destruct (loop_any l ser ss pend hh (or_introl I)) as (s2 & hh' & rem & E & Ha & Hr).
  rewrite (loop_hh _ _ Hnf _ _ _ _ _ _ _ E) in E. unfold file_path_fixup in E. rewrite Hnf in E.
  exists s2, rem. split; [exact E|]. split; [exact Ha | exact Hr].
Qed.

(* the path state entered in front of a separator: the first segment is empty *)
Theorem parse_path_at_slash hh ser l c r : inp_next l = Some (c, r) ->
  ((c =? 47) || (c =? 92) && st_is_special st) = true -> ps <= nlen ser -> k <= nlen ser ->
  path_res ser (parse_path dbg CUrlParser st hh ps ser l).
Proof using Hk.
  intros En Hc H1 H2. unfold parse_path. rewrite loop_ctx_drop_tnl.
  unfold inp_next in En. destruct (drop_while is_tnl l) as [|c' r'] eqn:Ed; [discriminate|]. inversion En; subst c' r'.
  assert (is_tnl c = false) as Et.
  { destruct (is_tnl c) eqn:E; [|reflexivity]. unfold is_tnl in E. exfalso. lia. }
  cbn [parse_path_loop]. rewrite Et. cbn [ctx_eqb negb andb push_pending]. rewrite Hc.
  assert (finish_segment dbg st ps (ser ++ [47]) (nlen ser) true hh = POk (ser ++ [47], hh)) as Ef.
  { unfold finish_segment. rewrite nlen_app. change (nlen [47]) with 1. replace (nlen ser + 1 - 1) with (nlen ser) by lia.
    rewrite slice_o_some by (rewrite ?nlen_app; lia). rewrite N.sub_diag.
    cbn [of_option pbind nfirstn N.to_nat firstn is_double_dot is_single_dot].
    replace (is_wdl []) with false by reflexivity. rewrite andb_false_r. reflexivity. }
  rewrite Ef. cbn [pbind].
  eapply path_res_pre; [apply agree_pre_app_le; exact H2|].
  apply loop_any. left. apply seg_inv_snoc; lia.
Qed.

End PathAny.
