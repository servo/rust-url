(* Proofs/C02_JoinPath.v - G1, third part: the path arms of the relative state on a canonical hierarchical base.
   A scheme-less reference whose first character (after trimming and tab/newline removal) is neither '?' nor '#':
     - two or more slashes (back-slashes too for a special base): scheme-relative, the authority state runs behind
       scheme ':' exactly as in a parse without base (ads_out / ads_out_sp);
     - one slash: path-absolute, the path state runs behind everything in front of the base's path;
     - anything else: path-relative, the base's last segment is popped and the path state runs behind the rest.
   In the last two arms the serialization the path state starts from has the shape  FRONT '/' seg '/' ... seg '/'
   (Bs FRONT segs) with canonical segments, so the loop invariants of C02_PathL1 / C02_PathSp give a canonical path
   text (rel_path_arms, once for both scheme kinds); what remains is with_query_and_fragment (marker handling for bases
   without authority), which the join theorem treats per form of the base.  What is needed of the query state is the
   premise qf_spec of C02_JoinTail, so that C02_Ovr can use the same lemmas for every encoding override. *)
From RU Require Import Base.Prelude Model.HostT Model.UrlRecord Model.Parser Model.WF Proofs.ListN
  Proofs.C06_List Proofs.C02_Parts Proofs.C02_Opaque Proofs.C02_Path Proofs.C02_PathL1 Proofs.C02_Reach
  Proofs.C02_AuthParts Proofs.C02_Auth Proofs.C02_AuthWf Proofs.C02_PathSp Proofs.C02_AuthSp Proofs.C02_AuthMain
  Proofs.C02_SetQF Proofs.C02_Canon Proofs.C02_JoinTail.
Open Scope N_scope.
Open Scope list_scope.

Lemma split_first_not47 {A} c (r : list N) (X : list N -> A) (Y : A) : (c =? 47) = false ->
  match (Some c, r) with (Some 47, remaining) => X remaining | _ => Y end = Y.
Proof.
  intros H. destruct c as [|p]; [reflexivity|]. do 6 (destruct p as [p|p|]; try reflexivity). discriminate H.
Qed.

Lemma Bs_start pre : pre ++ [47] = Bs pre [].
Proof. unfold Bs. cbn [segs_text map concat]. rewrite app_nil_r. reflexivity. Qed.

Lemma Bs_nil pre : pre ++ [47] = Bs pre [] ++ [].
Proof. rewrite app_nil_r. apply Bs_start. Qed.

Lemma Bs_path pre segs last : pre ++ path_text segs last = Bs pre segs ++ last.
Proof. unfold Bs, path_text. rewrite <- !app_assoc. reflexivity. Qed.

Lemma segs_text_ends segs : segs = [] \/ exists X, segs_text segs = X ++ [47].
Proof.
  destruct (rev segs) as [|t r] eqn:E.
  - left. rewrite <- (rev_involutive segs), E. reflexivity.
  - right. assert (segs = rev r ++ [t]) as -> by (rewrite <- (rev_involutive segs), E; reflexivity).
    rewrite segs_text_snoc. exists (segs_text (rev r) ++ t). rewrite <- app_assoc. reflexivity.
Qed.

(* pop_path on  FRONT ++ path : the last segment goes, the '/' in front of it stays (for the file scheme: unless
   that segment is a drive letter) *)
Lemma pop_path_pth st FRONT segs last : no_slash last = true -> st_is_file st && is_normalized_wdl last = false ->
  pop_path st (nlen FRONT) (FRONT ++ path_text segs last) = POk (Bs FRONT segs).
Proof.
  intros Hl Hw. unfold pop_path. rewrite nlen_app.
  replace (nlen FRONT <? nlen FRONT + nlen (path_text segs last)) with true
    by (unfold path_text, nlen; cbn [length]; lia).
  rewrite nskipn_app_len.
  set (T := [47] ++ segs_text segs).
  assert (path_text segs last = T ++ last) as ET by (unfold T, path_text; reflexivity). rewrite ET.
  assert (exists Y, T = Y ++ [47] /\ nlen Y + 1 = nlen T) as (Y & EY & LY).
  { unfold T. destruct (segs_text_ends segs) as [-> | [X EX]].
    - exists []. split; reflexivity.
    - exists ([47] ++ X). rewrite EX. split; [rewrite <- app_assoc; reflexivity | len_lia]. }
  assert (rfind 47 (T ++ last) = Some (nlen Y)) as ->.
  { rewrite EY, <- app_assoc. cbn [app]. apply rfind_app_last. exact Hl. }
  replace (nlen FRONT + nlen Y + 1) with (nlen (FRONT ++ T)) by (rewrite nlen_app; lia).
  rewrite app_assoc, nskipn_app_len, Hw. f_equal. unfold truncate.
  rewrite nfirstn_app_len. unfold Bs, T. rewrite <- !app_assoc. reflexivity.
Qed.

Lemma pop_path_empty st FRONT : pop_path st (nlen FRONT) FRONT = POk FRONT.
Proof. unfold pop_path. replace (nlen FRONT <? nlen FRONT) with false by lia. reflexivity. Qed.

Section Frame.
Variables (sch Z : list N) (ue hs he : N) (hi : host_internal) (pt : option N).
Notation FRONT := ((sch ++ [58]) ++ Z).
Notation Bu X q f := (qf_url (FRONT ++ X) (nlen sch) ue hs he hi pt (nlen FRONT) q f).

Lemma frame_colon X q f : nfirstn (nlen sch + 1) (ser (Bu X q f)) = sch ++ [58].
Proof.
  unfold qf_url. cbn [ser]. rewrite <- !app_assoc. rewrite (app_assoc sch [58]).
  replace (nlen sch + 1) with (nlen (sch ++ [58])) by (rewrite nlen_app; reflexivity). apply nfirstn_app_len.
Qed.

Lemma frame_front X q f : nfirstn (nlen FRONT) (ser (Bu X q f)) = FRONT.
Proof. unfold qf_url. cbn [ser]. rewrite <- (app_assoc ((sch ++ [58]) ++ Z) X (qf_text q f)). apply nfirstn_app_len. Qed.

Lemma frame_scheme X q f : b_scheme (Bu X q f) = sch.
Proof.
  apply b_scheme_qf; [rewrite <- !app_assoc; apply nfirstn_app_len | rewrite !nlen_app; lia].
Qed.
End Frame.

(* the path arms of the relative state *)
(* Once for a scheme kind st other than file and a predicate G on segments that the path loop of st establishes
   (Hloop: C02_PathL1.loop_inv with good_seg for the non-special kind, C02_PathSp.loop_inv_sp with good_seg_sp for the
   special one).  The scheme-relative arm ends in after_double_slash behind  scheme ':' , the other two in
   with_query_and_fragment behind the front of the base and a path of G-segments. *)
Section RelPath.
Variable dbg : bool.
Variable hp hpo : list N -> result host.
Variable hd : host -> list N.
Variable ovr : option (list N -> list N).
Variable st : scheme_type.
Variable G : list N -> bool.
Hypothesis Hnf : st_is_file st = false.
Hypothesis HG : forall s, G s = true -> no_slash s = true.
Hypothesis Hloop : forall pre l segs hh s' hh' rem, usv_list l -> forallb G segs = true ->
  parse_path_loop dbg CUrlParser st (nlen pre) l (Bs pre segs) (nlen (Bs pre segs)) [] hh = POk (s', hh', rem) ->
  exists segs' last', s' = Bs pre segs' ++ last' /\ forallb G segs' = true /\ G last' = true /\ rem = cbb_rest l.
Variables (sch Z : list N) (ue hs he : N) (hi : host_internal) (pt : option N).
Notation FRONT := ((sch ++ [58]) ++ Z).
Notation Bu X q f := (qf_url (FRONT ++ X) (nlen sch) ue hs he hi pt (nlen FRONT) q f).

Theorem rel_path_arms l c r p q f u : usv_list l -> inp_next l = Some (c, r) -> (c =? 63) = false -> (c =? 35) = false ->
  match p with Some (segs, last) => forallb G segs = true /\ G last = true | None => True end ->
  parse_relative dbg hp hpo hd ovr CUrlParser st (Bu (pth_text p) q f) l = POk u ->
  (exists l', usv_list l' /\ after_double_slash dbg hp hpo hd ovr CUrlParser st (nlen sch) (sch ++ [58]) l' = POk u)
  \/ (exists segs' last' l', usv_list l' /\ forallb G segs' = true /\ G last' = true /\
        with_query_and_fragment ovr CUrlParser st (nlen sch) ue hs he hi pt (nlen FRONT)
          (FRONT ++ path_text segs' last') (cbb_rest l') = POk u).
Proof.
  intros Hl En E63 E35 Hp H. pose proof (inp_next_usv l c r Hl En) as Hr.
  unfold parse_relative, inp_split_first in H. rewrite En in H. rewrite E63, E35 in H.
  change (scheme_end (Bu (pth_text p) q f)) with (nlen sch) in H.
  change (path_start (Bu (pth_text p) q f)) with (nlen FRONT) in H.
  cbn [username_end host_start host_end hosti port qf_url] in H.
  destruct ((c =? 47) || (c =? 92) && st_is_special st) eqn:Esl.
  - destruct (inp_count_matching (fun d : N => (d =? 47) || (d =? 92) && st_is_special st) l) as [sl rm] eqn:Ec.
    destruct (2 <=? sl).
    + (* scheme-relative *)
      left. match type of H with context [dassert ?d ?cc] => destruct (dassert d cc) end; cbn [pbind] in H; try discriminate H.
      rewrite (frame_colon sch Z ue hs he hi pt) in H.
      destruct (negb (st_is_special st)); [destruct (inp_split_prefix_str s_ss l) as [ap|] eqn:Es|].
      * exists ap. split; [exact (split_prefix_str_usv _ _ _ Hl Es) | exact H].
      * exists rm. split; [exact (count_matching_usv _ _ _ _ Hl Ec) | exact H].
      * exists rm. split; [exact (count_matching_usv _ _ _ _ Hl Ec) | exact H].
    + (* path-absolute *)
      right. rewrite (frame_front sch Z ue hs he hi pt) in H. unfold parse_path in H. rewrite (Bs_start FRONT) in H.
      destruct (parse_path_loop dbg CUrlParser st (nlen FRONT) r (Bs FRONT []) (nlen (Bs FRONT [])) [] true)
        as [[[s hh] rest]| |] eqn:El; cbn [pbind] in H; try discriminate H.
      destruct (Hloop FRONT r [] true s hh rest Hr eq_refl El) as (segs' & last' & -> & Hs' & Hl' & ->).
      exists segs', last', r. rewrite Bs_path. repeat split; assumption.
  - (* path-relative: the last segment of the base goes *)
    right. apply orb_false_iff in Esl. destruct Esl as [E47 _]. rewrite before_query_qf in H.
    match type of H with context [st_is_special (scheme_type_of (b_scheme ?b))] =>
      set (sp := st_is_special (scheme_type_of (b_scheme b))) in H end.
    assert (exists segs0, forallb G segs0 = true /\
              (' (s1) <~ pop_path st (nlen FRONT) (FRONT ++ pth_text p) ;;
               POk (if (nlen s1 =? nlen FRONT) && (sp || negb (inp_is_empty l)) then s1 ++ [47] else s1))
              = POk (Bs FRONT segs0)) as (segs0 & Hs0 & Epop).
    { destruct p as [[segs last]|]; cbn [pth_text].
      - destruct Hp as [Hsg Hla]. exists segs. split; [exact Hsg|].
        rewrite (pop_path_pth st FRONT segs last (HG last Hla)) by (rewrite Hnf; reflexivity). cbn [pbind].
        pose proof (Bs_len_ge FRONT segs) as L. replace (nlen (Bs FRONT segs) =? nlen FRONT) with false by lia. reflexivity.
      - exists []. split; [reflexivity|]. rewrite app_nil_r, pop_path_empty. cbn [pbind]. rewrite N.eqb_refl.
        unfold inp_is_empty. rewrite En. cbn [negb]. rewrite orb_true_r. cbn [andb]. rewrite Bs_start. reflexivity. }
    destruct (pop_path st (nlen FRONT) (FRONT ++ pth_text p)) as [s1| |]; cbn [pbind] in H, Epop; try discriminate Epop.
    injection Epop as Epop. rewrite Epop in H. rewrite (split_first_not47 c r _ _ E47) in H.
    unfold parse_path in H.
    destruct (parse_path_loop dbg CUrlParser st (nlen FRONT) l (Bs FRONT segs0) (nlen (Bs FRONT segs0)) [] true)
      as [[[s hh] rest]| |] eqn:El; cbn [pbind] in H; try discriminate H.
    destruct (Hloop FRONT l segs0 true s hh rest Hl Hs0 El) as (segs' & last' & -> & Hs' & Hl' & ->).
    exists segs', last', l. rewrite Bs_path. repeat split; assumption.
Qed.
End RelPath.

Lemma loop_start_ns dbg pre l segs hh s' hh' rem : usv_list l -> forallb good_seg segs = true ->
  parse_path_loop dbg CUrlParser STNotSpecial (nlen pre) l (Bs pre segs) (nlen (Bs pre segs)) [] hh = POk (s', hh', rem) ->
  exists segs' last', s' = Bs pre segs' ++ last' /\ forallb good_seg segs' = true /\ good_seg last' = true /\ rem = cbb_rest l.
Proof.
  intros Hl Hs H. rewrite <- (app_nil_r (Bs pre segs)) in H at 1.
  assert (pend_ok []) as Hp by (split; [constructor | reflexivity]).
  destruct (loop_inv pre dbg l segs [] [] hh s' hh' rem Hl Hp Hs eq_refl eq_refl H) as (segs' & last' & E & G1 & G2 & _ & R).
  exists segs', last'. repeat split; assumption.
Qed.

Lemma loop_start_sp dbg pre l segs hh s' hh' rem : usv_list l -> forallb good_seg_sp segs = true ->
  parse_path_loop dbg CUrlParser STSpecialNotFile (nlen pre) l (Bs pre segs) (nlen (Bs pre segs)) [] hh = POk (s', hh', rem) ->
  exists segs' last', s' = Bs pre segs' ++ last' /\ forallb good_seg_sp segs' = true /\ good_seg_sp last' = true
                      /\ rem = cbb_rest l.
Proof.
  intros Hl Hs H. rewrite <- (app_nil_r (Bs pre segs)) in H at 1.
  destruct (loop_inv_sp pre dbg l segs [] [] hh s' hh' rem Hl pend_nil_ok Hs eq_refl eq_refl eq_refl H)
    as (segs' & last' & E & G1 & G2 & _ & R).
  exists segs', last'. repeat split; assumption.
Qed.

(* with_query_and_fragment behind the new path *)
(* base without authority whose serialization carries the "/." marker: the marker is kept when the new path starts
   with "//" and removed otherwise - the same result as for a base without marker *)
Lemma wqf_noauth_marker_eq ovr sch T rest : starts_with [47] T = true ->
  let a := nlen (sch ++ [58]) in
  with_query_and_fragment ovr CUrlParser STNotSpecial (nlen sch) a a a HI_None None (nlen ((sch ++ [58]) ++ [47; 46]))
    (((sch ++ [58]) ++ [47; 46]) ++ T) rest
  = (' (s2, qs, fs) <~ parse_query_and_fragment ovr CUrlParser STNotSpecial (nlen sch) (noauth_pre sch T) rest ;;
     POk (mkUrl s2 (nlen sch) a a a HI_None None (a + nlen (marker_of T)) qs fs)).
Proof.
  intros HT a. destruct T as [|t0 T']; [discriminate|]. cbn [starts_with] in HT. rewrite andb_true_r in HT.
  apply N.eqb_eq in HT. subst t0.
  assert (nlen ((sch ++ [58]) ++ [47; 46]) = nlen sch + 3) as Eps by (rewrite !nlen_app; unfold nlen; cbn [length]; lia).
  assert (a = nlen sch + 1) as Ea by (unfold a; rewrite nlen_app; unfold nlen; cbn [length]; lia).
  unfold with_query_and_fragment. rewrite Eps.
  replace (nlen sch + 3 =? nlen sch + 1) with false by lia. rewrite N.eqb_refl.
  replace (nlen sch + 3 - nlen sch) with 3 by lia. cbn [andb].
  set (S0 := ((sch ++ [58]) ++ [47; 46]) ++ 47 :: T').
  assert (S0 = sch ++ 58 :: 47 :: 46 :: 47 :: T') as ES0 by (unfold S0; rewrite <- !app_assoc; reflexivity).
  assert (nskipn (nlen sch) S0 = 58 :: 47 :: 46 :: 47 :: T') as Esk by (rewrite ES0; apply nskipn_app_len).
  rewrite Esk. change (list_eqb (nfirstn 3 (58 :: 47 :: 46 :: 47 :: T')) [58; 47; 46]) with true. cbv iota.
  assert (nskipn (nlen sch + 3) S0 = 47 :: T') as Esk3.
  { unfold S0. rewrite <- Eps. apply nskipn_app_len. }
  assert (nnth S0 (nlen sch + 3) = Some 47) as ->.
  { rewrite <- (N.add_0_r (nlen sch + 3)). rewrite <- nnth_nskipn. rewrite Esk3. reflexivity. }
  cbn [passert pbind N.eqb Pos.eqb].
  assert (nnth S0 (nlen sch + 3 + 1) = nnth T' 0) as ->.
  { rewrite <- nnth_nskipn. rewrite Esk3. reflexivity. }
  assert (nfirstn (nlen sch) S0 = sch) as Efs by (rewrite ES0; apply nfirstn_app_len).
  unfold noauth_pre, marker_of.
  destruct T' as [|c T'']; [|destruct (c =? 47) eqn:E47].
  - change (nnth [] 0) with (@None N). cbv iota. rewrite Efs, Esk3.
    assert (nskipn (nlen sch) (sch ++ [58] ++ [47]) = [58; 47]) as -> by apply nskipn_app_len.
    cbn [starts_with s_css s_ss]. rewrite !N.eqb_refl. cbn [andb negb passert pbind app].
    rewrite <- !app_assoc. cbn [app nlen length]. rewrite N.add_0_r. replace (nlen sch + 3 - 2) with a by lia. reflexivity.
  - apply N.eqb_eq in E47. subst c. change (nnth (47 :: T'') 0) with (Some 47). cbv iota.
    rewrite Esk. cbn [starts_with s_css s_ss]. rewrite !N.eqb_refl.
    replace (47 =? 46) with false by reflexivity. cbn [andb negb passert pbind app].
    replace (a + nlen [47; 46]) with (nlen sch + 3) by (rewrite Ea; unfold nlen; cbn [length]; lia).
    unfold S0. rewrite <- !app_assoc. reflexivity.
  - change (nnth (c :: T'') 0) with (Some c). cbv iota.
    assert (forall (A : Type) (X Y : A), match c with 47 => X | _ => Y end = Y) as M47.
    { intros A X Y. destruct c as [|p]; [reflexivity|]. do 6 (destruct p as [p|p|]; try reflexivity). discriminate E47. }
    rewrite M47. rewrite Efs, Esk3.
    assert (nskipn (nlen sch) (sch ++ [58] ++ 47 :: c :: T'') = 58 :: 47 :: c :: T'') as -> by apply nskipn_app_len.
    cbn [starts_with s_css s_ss]. rewrite !N.eqb_refl. rewrite (N.eqb_sym 47 c), E47.
    cbn [andb negb passert pbind app].
    rewrite <- !app_assoc. cbn [app nlen length]. rewrite N.add_0_r. replace (nlen sch + 3 - 2) with a by lia. reflexivity.
Qed.

(* the join theorem *)
(* every reference without a scheme *)
Definition rel_ref (input : list N) : bool :=
  match parse_scheme CUrlParser (input_new_trim_c0 input) with Some _ => false | None => true end.

Section JoinPath.
Variable dbg : bool.
Variable hp hpo : list N -> result host.
Variable hd : host -> list N.
Hypothesis HRT : HostRT hp hpo hd.
Hypothesis HAb : host_above hp hpo hd.

Notation auth_ok := (auth_ok hp hpo hd).
Notation auth_url := (auth_url hd).
Notation auth_front := (auth_front hd).
Notation Canon := (Canon hp hpo hd).

Lemma auth_front_Z sch ui h pt : auth_front sch ui h pt = (sch ++ [58]) ++ (47 :: 47 :: ui_text ui ++ hd h ++ port_text pt).
Proof. unfold C02_Auth.auth_front. rewrite <- !app_assoc. reflexivity. Qed.

Lemma auth_url_scheme sch ui h pt p q f : b_scheme (auth_url sch ui h pt p q f) = sch.
Proof.
  rewrite auth_url_qf. destruct (auth_pre_sch hd sch ui h pt p) as [S1 S2]. exact (b_scheme_qf _ _ _ _ _ _ _ _ q f sch S1 S2).
Qed.

(* with_query_and_fragment behind a new canonical path of a record with authority *)
Lemma auth_wqf st ovr sch ui h pt p q f p' rest u : auth_ok st sch ui h pt p q f ->
  pth_ok p' -> usv_list rest -> qf_spec ovr st (nlen sch) (auth_front sch ui h pt ++ pth_text p') ->
  with_query_and_fragment ovr CUrlParser st (nlen sch) (nlen sch + 3 + ui_ulen ui) (nlen sch + 3 + nlen (ui_text ui))
     (nlen sch + 3 + nlen (ui_text ui) + nlen (hd h)) (hi_of_host h) pt (nlen (auth_front sch ui h pt))
     (auth_front sch ui h pt ++ pth_text p') rest = POk u ->
  exists q' f', auth_ok st sch ui h pt p' q' f' /\ u = auth_url sch ui h pt p' q' f'.
Proof.
  intros K Hp' Hr HQ. rewrite wqf_auth; [|rewrite front_len; lia | apply front_css].
  destruct (parse_query_and_fragment ovr CUrlParser st (nlen sch) (auth_front sch ui h pt ++ pth_text p') rest)
    as [[[s4 qs] fs]| |] eqn:E4; cbn [pbind]; try discriminate.
  destruct (HQ rest s4 qs fs Hr E4) as (q' & f' & -> & -> & -> & Bq & Bf & Cq & Cf).
  intros H. inversion H; subst u. clear H.
  exists q', f'. split; [|reflexivity].
  destruct K as [Ksch Kst Kui Kh Kemp Kpt Kp Kq Kf Kb Kbq Kbf]. constructor; assumption.
Qed.

(* the path arms on a non-special base *)
Lemma rel_ns_out ovr sch Z ue hs he hi pt l c r p q f u : scheme_canon sch = true -> scheme_type_of sch = STNotSpecial ->
  usv_list l -> inp_next l = Some (c, r) -> (c =? 63) = false -> (c =? 35) = false -> pth_ok p ->
  parse_relative dbg hp hpo hd ovr CUrlParser STNotSpecial
    (qf_url (((sch ++ [58]) ++ Z) ++ pth_text p) (nlen sch) ue hs he hi pt (nlen ((sch ++ [58]) ++ Z)) q f) l = POk u ->
  (exists ui h pt' p' q' f', auth_ok STNotSpecial sch ui h pt' p' q' f' /\ u = auth_url sch ui h pt' p' q' f')
  \/ (exists segs' last' l', usv_list l' /\ forallb good_seg segs' = true /\ good_seg last' = true /\
        with_query_and_fragment ovr CUrlParser STNotSpecial (nlen sch) ue hs he hi pt (nlen ((sch ++ [58]) ++ Z))
          (((sch ++ [58]) ++ Z) ++ path_text segs' last') (cbb_rest l') = POk u).
Proof.
  intros Hsc Hst Hl En E63 E35 Hp H.
  destruct (rel_path_arms dbg hp hpo hd ovr STNotSpecial good_seg eq_refl good_seg_no_slash (loop_start_ns dbg)
              sch Z ue hs he hi pt l c r p q f u Hl En E63 E35 Hp H) as [(l' & Hl' & Ha) | R]; [left | right; exact R].
  exact (ads_out dbg hp hpo hd HRT HAb ovr sch l' u Hsc Hst Hl' Ha).
Qed.

(* the path arms on a special base, given what the authority state and the query state do under the override *)
Lemma rel_sp_path ovr sch ui h pt p q f l c r u : auth_ok STSpecialNotFile sch ui h pt p q f -> pth_ok_sp p ->
  (forall l' u', usv_list l' ->
     after_double_slash dbg hp hpo hd ovr CUrlParser STSpecialNotFile (nlen sch) (sch ++ [58]) l' = POk u' ->
     exists ui' h' pt' p' q' f', auth_ok STSpecialNotFile sch ui' h' pt' p' q' f' /\ pth_ok_sp p'
                                 /\ u' = auth_url sch ui' h' pt' p' q' f') ->
  (forall ser, qf_spec ovr STSpecialNotFile (nlen sch) ser) ->
  usv_list l -> inp_next l = Some (c, r) -> (c =? 63) = false -> (c =? 35) = false ->
  parse_relative dbg hp hpo hd ovr CUrlParser STSpecialNotFile (auth_url sch ui h pt p q f) l = POk u -> Canon u.
Proof.
  intros K Kp HA HQ Hl En E63 E35 Hp. destruct p as [[segs last]|]; [|contradiction].
  rewrite auth_url_qf in Hp. unfold auth_pre in Hp. rewrite auth_front_Z in Hp.
  apply (rel_path_arms dbg hp hpo hd ovr STSpecialNotFile good_seg_sp eq_refl good_seg_sp_no_slash (loop_start_sp dbg)
           sch _ _ _ _ _ _ l c r (Some (segs, last)) q f u Hl En E63 E35 Kp) in Hp.
  destruct Hp as [(l' & Hl' & Ha) | (segs' & last' & l' & Hl' & Hs' & Hla' & Hw)].
  - destruct (HA l' u Hl' Ha) as (ui' & h' & pt' & p' & q' & f' & K' & Kp' & ->).
    exact (Canon_special hp hpo hd sch ui' h' pt' p' q' f' K' Kp').
  - rewrite <- auth_front_Z in Hw.
    destruct (auth_wqf STSpecialNotFile ovr sch ui h pt _ q f (Some (segs', last')) (cbb_rest l') u K
                (conj (good_segs_sp_good segs' Hs') (good_seg_sp_good last' Hla'))
                (usv_cbb_rest l' Hl') (HQ _) Hw) as (q' & f' & K' & ->).
    exact (Canon_special hp hpo hd sch ui h pt _ q' f' K' (conj Hs' Hla')).
Qed.

Theorem join_rel_Canon ovr b input u : Canon b -> usv_list input -> rel_ref input = true ->
  (ovr = None \/ st_is_special (scheme_type_of (b_scheme b)) = false) ->
  parse_url dbg hp hpo hd ovr (Some b) input = POk u -> Canon u.
Proof.
  intros Cb Hu Hr Hov Hp.
  destruct (tail_ref input) eqn:Et; [exact (join_tail_Canon dbg hp hpo hd HRT ovr b input u Cb Hu Et Hov Hp)|].
  pose proof (usv_trim is_c0_or_space input Hu : usv_list (input_new_trim_c0 input)) as Hl. unfold rel_ref in Hr. unfold tail_ref in Et. unfold parse_url in Hp.
  set (l := input_new_trim_c0 input) in *.
  destruct (parse_scheme CUrlParser l) as [[s0 r0]|]; [discriminate|].
  destruct (inp_next l) as [[c r]|] eqn:En; [|discriminate].
  apply orb_false_iff in Et. destruct Et as [E35 E63].
  unfold inp_starts_with_char in Hp. rewrite En, E35 in Hp.
  destruct Cb as [sch P q f K | sch segs last q f K | sch ui h pt p q f K | sch ui h pt p q f K Kp].
  - rewrite (opaque_url_cbb sch P q f K) in Hp. discriminate.
  - (* base without authority *)
    rewrite (proj1 (proj2 (noauth_url_wf sch segs last q f K))) in Hp.
    destruct K as [Ksch Kns Ksegs Klast Kq Kf Kb1 Kbq Kbf].
    set (T := path_text segs last) in *. set (a := nlen (sch ++ [58])) in *.
    assert (noauth_url sch T q f
            = qf_url (((sch ++ [58]) ++ marker_of T) ++ T) (nlen sch) a a a HI_None None (nlen ((sch ++ [58]) ++ marker_of T)) q f) as EB.
    { rewrite noauth_url_qf. unfold noauth_pre. rewrite (nlen_app (sch ++ [58])). rewrite (app_assoc (sch ++ [58])). reflexivity. }
    rewrite EB in Hp. rewrite frame_scheme in Hp. rewrite Kns in Hp. cbn [st_is_file] in Hp.
    apply (rel_ns_out ovr sch (marker_of T) a a a HI_None None l c r (Some (segs, last)) q f u Ksch Kns
             Hl En E63 E35 (conj Ksegs Klast)) in Hp.
    destruct Hp as [(ui & h & pt' & p' & q' & f' & K' & ->) | (segs' & last' & l' & Hl' & Hs' & Hla' & Hw)];
      [exact (Canon_auth hp hpo hd sch ui h pt' p' q' f' K')|].
    assert ((' (s2, qs, fs) <~ parse_query_and_fragment ovr CUrlParser STNotSpecial (nlen sch)
                                 (noauth_pre sch (path_text segs' last')) (cbb_rest l') ;;
             POk (mkUrl s2 (nlen sch) a a a HI_None None (a + nlen (marker_of (path_text segs' last'))) qs fs)) = POk u) as Hw2.
    { rewrite <- Hw. symmetry. unfold marker_of at 1 2. destruct (starts_with s_ss T).
      - exact (wqf_noauth_marker_eq ovr sch (path_text segs' last') (cbb_rest l') eq_refl).
      - rewrite !app_nil_r. exact (wqf_noauth_eq hp hpo ovr sch (path_text segs' last') (cbb_rest l') eq_refl). }
    clear Hw. set (T' := path_text segs' last') in *.
    destruct (parse_query_and_fragment ovr CUrlParser STNotSpecial (nlen sch) (noauth_pre sch T') (cbb_rest l'))
      as [[[s2 qs] fs]| |] eqn:Eq; cbn [pbind] in Hw2; try discriminate Hw2.
    inversion Hw2; subst u. clear Hw2.
    apply pqf_out in Eq; [|apply usv_cbb_rest; exact Hl'|].
    2:{ unfold noauth_pre. rewrite <- !app_assoc. rewrite nfirstn_app_len. apply query_enc_nonspecial. exact Kns. }
    destruct Eq as (-> & -> & -> & Bq & Bf & Cq & Cf).
    apply (Canon_noauth hp hpo hd sch segs' last' (pqf_q STNotSpecial (cbb_rest l')) (pqf_f (cbb_rest l'))).
    constructor; assumption.
  - (* base with authority, non-special scheme *)
    rewrite (proj2 (auth_url_wf hp hpo hd HRT _ _ _ _ _ _ _ _ K)) in Hp.
    rewrite auth_url_scheme, (ak_st _ _ _ _ _ _ _ _ _ _ _ K) in Hp. cbn [st_is_file] in Hp.
    rewrite auth_url_qf in Hp. unfold auth_pre in Hp. rewrite auth_front_Z in Hp.
    apply (rel_ns_out ovr sch _ _ _ _ _ _ l c r p q f u (ak_sch _ _ _ _ _ _ _ _ _ _ _ K) (ak_st _ _ _ _ _ _ _ _ _ _ _ K)
             Hl En E63 E35 (ak_p _ _ _ _ _ _ _ _ _ _ _ K)) in Hp.
    destruct Hp as [(ui' & h' & pt' & p' & q' & f' & K' & ->) | (segs' & last' & l' & Hl' & Hs' & Hla' & Hw)];
      [exact (Canon_auth hp hpo hd sch ui' h' pt' p' q' f' K')|].
    rewrite <- auth_front_Z in Hw.
    assert (qf_spec ovr STNotSpecial (nlen sch) (auth_front sch ui h pt ++ pth_text (Some (segs', last')))) as HQ.
    { apply qf_spec_utf8. rewrite <- app_assoc, front_sch. apply query_enc_nonspecial. exact (ak_st _ _ _ _ _ _ _ _ _ _ _ K). }
    destruct (auth_wqf STNotSpecial ovr sch ui h pt p q f (Some (segs', last')) (cbb_rest l') u K (conj Hs' Hla')
                (usv_cbb_rest l' Hl') HQ Hw) as (q' & f' & K' & ->).
    exact (Canon_auth hp hpo hd sch ui h pt _ q' f' K').
  - (* special base: the override is absent *)
    rewrite (proj2 (auth_url_wf hp hpo hd HRT _ _ _ _ _ _ _ _ K)) in Hp.
    rewrite auth_url_scheme, (ak_st _ _ _ _ _ _ _ _ _ _ _ K) in Hp, Hov. cbn [st_is_file st_is_special] in Hp, Hov.
    destruct Hov as [-> | Hov]; [|discriminate Hov].
    exact (rel_sp_path None sch ui h pt p q f l c r u K Kp
             (fun l' u' => ads_out_sp dbg hp hpo hd HRT HAb sch l' u' (ak_sch _ _ _ _ _ _ _ _ _ _ _ K) (ak_st _ _ _ _ _ _ _ _ _ _ _ K))
             (fun ser => qf_spec_utf8 None STSpecialNotFile (nlen sch) ser eq_refl) Hl En E63 E35 Hp).
Qed.

Theorem join_rel_fixpoint ovr b input u : Canon b -> usv_list input -> rel_ref input = true ->
  (ovr = None \/ st_is_special (scheme_type_of (b_scheme b)) = false) ->
  parse_url dbg hp hpo hd ovr (Some b) input = POk u ->
  Fixpoint_of_reparse dbg hp hpo hd u /\ wf_b u = true /\ ascii (ser u).
Proof.
  intros Cb Hu Ht Hov Hp. apply (Canon_fixpoint dbg hp hpo hd HRT).
  exact (join_rel_Canon ovr b input u Cb Hu Ht Hov Hp).
Qed.
End JoinPath.

(* non-vacuity: the three path arms on a special base, on a base with authority (empty path), on a base without
   authority with and without the "/." marker (the marker goes when the new path does not start with "//") *)
From Coq Require Import String.
Definition ex_join (b r : String.string) (expect : String.string) : bool :=
  match parse_url true ex_hp ex_hp ex_hd None None (B b) with
  | POk bu => match parse_url true ex_hp ex_hp ex_hd None (Some bu) (B r) with
              | POk u => list_eqb (ser u) (B expect) && rel_ref (B r) && negb (tail_ref (B r))
              | _ => false end
  | _ => false
  end.

Open Scope string_scope.
Example join_path_examples :
  ex_join "http://h/p/q?q#f" "../x y" "http://h/x%20y" = true
  /\ ex_join "http://h/p/q?q#f" "\y/./z?k" "http://h/y/z?k" = true
  /\ ex_join "http://h/p/q?q#f" "/\h2/z" "http://h2/z" = true
  /\ ex_join "http://h/p/q?q#f" "a/../b/%2e#g" "http://h/p/b/#g" = true
  /\ ex_join "a://h" "x/y" "a://h/x/y" = true
  /\ ex_join "a://h/p" "//h2" "a://h2" = true
  /\ ex_join "a:/p/q" "../../..//x" "a:/.//x" = true
  /\ ex_join "a:/.//p/q" "r" "a:/.//p/r" = true
  /\ ex_join "a:/.//p/q" "/r" "a:/r" = true
  /\ ex_join "a:/.//p/q" "../../r" "a:/r" = true.
Proof. vm_compute. repeat split. Qed.
