(* Proofs/C04_ParseFile.v - the file states of the parser (Parser::parse_file) reach no panic site, for
   every input and every well-formed file base, outside ONE situation: a relative reference that starts
   with a path segment (not '/', '\', '?', '#', not a drive letter) against a base for which
   shorten_path leaves a text that does not end in '/' (it refuses to remove a drive-letter-shaped last
   segment, or the base path is empty): the first segment then starts behind a byte that is not '/', and
   a ".." there fails the debug assertion of the path state - finding F-C04-7.  file_rel_unsafe is the
   computable recogniser of that situation (it does not look at the segment itself: a superset). *)
From RU Require Import Base.Prelude Base.Utf8 Model.AsciiSet Gen.Tables Model.PercentEncoding
  Model.HostT Model.UrlRecord Model.Parser Model.WF
  Proofs.ListN Proofs.C06_List Proofs.C02_Parts Proofs.C03_WF Proofs.C06_WFI Proofs.C06_Tail Proofs.C06_Steps
  Proofs.C04_Parse Proofs.C04_PathTotal Proofs.C04_ParseTotal Proofs.C04_PathFile Proofs.C04_PathCtx.

Definition file_rel_unsafe (b : url) (l : list N) : bool :=
  match inp_next l with
  | None => false
  | Some (c, _) =>
      if is_slash_or_bslash c then false
      else if (c =? 63) || (c =? 35) then false
      else if starts_with_wdl_segment l then false
      else match shorten_path STFile (path_start b) (b_before_query b) with
           | POk s1 => negb (ends_with_byte 47 s1)
           | _ => true
           end
  end.

Lemma fixup_slash st ps s2 : st_is_file st = true -> ps <= nlen s2 -> nnth (file_path_fixup st ps s2) ps = Some 47.
Proof.
  intros Hf Hl. unfold file_path_fixup. rewrite Hf.
  rewrite nnth_app_ge by (rewrite nlen_nfirstn by exact Hl; lia). rewrite nlen_nfirstn by exact Hl.
  rewrite N.sub_diag. reflexivity.
Qed.

Lemma pqf_bind_ok {A} ovr st se ser rem (F : list N * option N * option N -> pres A) :
  rem_ok rem -> (forall x, F x <> PPanic) -> pbind (parse_query_and_fragment ovr CUrlParser st se ser rem) F <> PPanic.
Proof.
  intros Hr HF. pose proof (pqf_no_panic ovr CUrlParser st se ser rem Hr) as Hq.
  destruct (parse_query_and_fragment ovr CUrlParser st se ser rem) as [x| |]; cbn [pbind]; [apply HF | discriminate | congruence].
Qed.

Lemma parse_file_host_ok hp hd ser l : parse_file_host hp hd ser l <> PPanic.
Proof.
  unfold parse_file_host. destruct (file_host l) as [h rem]. destruct h as [|c t]; [discriminate|].
  destruct (hp (c :: t)) as [host|e]; cbn [of_result pbind]; [|discriminate].
  destruct host as [d| |]; try discriminate. destruct (list_eqb d s_localhost); discriminate.
Qed.

Lemma shorten_len st ps s s1 : shorten_path st ps s = POk s1 -> ps <= nlen s -> ps <= nlen s1.
Proof.
  unfold shorten_path, pop_path. intros H Hl.
  destruct (nlen s =? ps); [inversion H; subst; exact Hl|].
  destruct (st_is_file st && is_normalized_wdl (nskipn ps s)); [inversion H; subst; exact Hl|].
  destruct (ps <? nlen s); [|inversion H; subst; exact Hl].
  destruct (rfind 47 (nskipn ps s)) as [sp|] eqn:Er; [|discriminate].
  destruct (st_is_file st && is_normalized_wdl (nskipn (ps + sp + 1) s)); inversion H; subst; [exact Hl|].
  apply rfind_lt' in Er. rewrite nlen_nskipn in Er. unfold truncate. rewrite nlen_nfirstn by lia. lia.
Qed.

Lemma nlen_file_css : nlen s_file_css = 7.
Proof. reflexivity. Qed.

Section File.
Variable dbg : bool.
Variable hp : list N -> result host.
Variable hd : host -> list N.
Variable ovr : option (list N -> list N).

Theorem parse_file_ok st base_file l :
  (match base_file with Some b => wf_b b = true /\ file_rel_unsafe b l = false | None => True end) ->
  parse_file dbg hp hd ovr CUrlParser st base_file l <> PPanic.
Proof.
  intros Hb.
  (* the arm without base, and with a drive letter in front *)
  assert ((' (s2, _, rem) <~ parse_path dbg CUrlParser STFile false 7 (s_file_css ++ [47]) l ;;
           ' (s3, qs, fs) <~ parse_query_and_fragment ovr CUrlParser STFile 4 s2 rem ;;
           POk (file_url s3 7 7 HI_None qs fs)) <> PPanic) as Hplain.
  { destruct (parse_path_ctx dbg CUrlParser STFile 7 7 ltac:(lia) false (s_file_css ++ [47]) l
                (seg_inv_snoc 7 7 s_file_css ltac:(rewrite nlen_file_css; lia) ltac:(rewrite nlen_file_css; lia)))
      as (s2 & hh' & rem & E & _ & Hr).
    rewrite E. cbn [pbind]. apply pqf_bind_ok; [exact Hr|]. intros [[a q] f]. discriminate. }
  unfold parse_file. destruct (inp_split_first l) as [fc af] eqn:Esf.
  destruct (match fc with Some c => is_slash_or_bslash c | None => false end) eqn:Esl.
  - (* the reference starts with a separator *)
    destruct fc as [c|]; [|discriminate].
    assert (exists r, inp_next l = Some (c, r)) as [r En].
    { unfold inp_split_first in Esf. destruct (inp_next l) as [[c' r']|]; [|discriminate]. inversion Esf; subst. exists af. reflexivity. }
    destruct (inp_split_first af) as [nc an].
    destruct (match nc with Some c0 => is_slash_or_bslash c0 | None => false end).
    + (* file host state *)
      cbv zeta.
      pose proof (parse_file_host_ok hp hd s_file_css an) as Hh.
      destruct (parse_file_host hp hd s_file_css an) as [[[[ser1 flag] hi] rm]| |]; cbn [pbind]; [|discriminate|congruence].
      du32 (nlen ser1) he Ehe.
      assert (exists s' hh' rem, (if flag then parse_path_start dbg CUrlParser STFile (negb (hi_eqb hi HI_None)) ser1 rm
                                  else parse_path dbg CUrlParser STFile (negb (hi_eqb hi HI_None)) (nlen ser1) (ser1 ++ [47]) rm)
                                 = POk (s', hh', rem) /\ rem_ok rem) as (s' & hh' & rem & E & Hr).
      { destruct flag.
        { destruct (parse_path_start_res dbg CUrlParser STFile eq_refl (negb (hi_eqb hi HI_None)) ser1 rm) as (s2 & hh' & rem & E & _ & Hr).
          eexists _, hh', rem. split; [exact E | exact Hr]. }
        destruct (parse_path_ctx dbg CUrlParser STFile (nlen ser1) (nlen ser1) ltac:(lia) (negb (hi_eqb hi HI_None)) (ser1 ++ [47]) rm
                    (seg_inv_snoc (nlen ser1) (nlen ser1) ser1 ltac:(lia) ltac:(lia))) as (s2 & hh' & rem & E & _ & Hr).
        eexists _, hh', rem. split; [exact E | exact Hr]. }
      rewrite E. cbn [pbind].
      destruct (if negb hh' then (nfirstn 7 s' ++ nskipn he s', 7, HI_None) else (s', he, hi)) as [[ser3 he3] hi3].
      apply pqf_bind_ok; [exact Hr|]. intros [[a q] f]. discriminate.
    + (* one separator: the path state is entered in front of it *)
      cbv zeta.
      set (T := if negb (starts_with_wdl_segment af) then _ else _).
      assert (let '(ser1, he, _) := T in he <= nlen ser1) as HT.
      { subst T. destruct (negb (starts_with_wdl_segment af)); [|rewrite nlen_file_css; lia].
        destruct base_file as [b|]; [|rewrite nlen_file_css; lia].
        destruct (base_first_segment b) as [seg|]; [|rewrite nlen_file_css; lia].
        destruct (is_normalized_wdl seg); [rewrite !nlen_app, nlen_file_css; lia|].
        destruct (host_str b) as [[hs|]|]; try (rewrite nlen_file_css; lia). lia. }
      destruct T as [[ser1 he] hi].
      destruct (parse_path_at_slash dbg STFile he he ltac:(lia) false ser1 l c r En) as (s2 & hh' & rem & E & _ & Hr).
      { cbn [st_is_special]. rewrite andb_true_r. exact Esl. }
      { lia. } { exact HT. }
      rewrite E. cbn [pbind]. apply pqf_bind_ok; [exact Hr|]. intros [[a q] f]. discriminate.
  - destruct base_file as [b|]; [|exact Hplain].
    destruct fc as [c|]; [|discriminate].
    destruct Hb as [W Hu].
    assert (inp_next l = Some (c, af)) as En.
    { unfold inp_split_first in Esf. destruct (inp_next l) as [[c' r']|]; [|discriminate]. inversion Esf; subst. reflexivity. }
    destruct (c =? 63) eqn:E63.
    { apply pqf_bind_ok; [unfold rem_ok; rewrite En; unfold is_qh; rewrite E63; reflexivity|]. intros [[a q] f]. discriminate. }
    destruct (c =? 35) eqn:E35; [apply fragment_only_ok|].
    destruct (starts_with_wdl_segment l) eqn:Ew; cbn [negb]; [exact Hplain|].
    unfold file_rel_unsafe in Hu. rewrite En, Esl, E63, E35, Ew in Hu. cbn [orb] in Hu.
    destruct (shorten_path STFile (path_start b) (b_before_query b)) as [s1| |] eqn:Es; try discriminate.
    apply negb_false_iff in Hu. cbn [pbind].
    destruct (bq_shape b W) as (Ebq & P1 & P2).
    assert (path_start b <= nlen s1) as L1.
    { apply (shorten_len _ _ _ _ Es). rewrite Ebq, nlen_nfirstn by exact P2. exact P1. }
    apply ends_with_byte_nnth in Hu. destruct Hu as [U1 U2].
    destruct (parse_path_ctx dbg CUrlParser STFile (path_start b) (path_start b) ltac:(lia) true s1 l) as (s2 & hh' & rem & E & Ha & Hr).
    { unfold seg_inv. repeat split; try lia. exact U2. }
    rewrite E. cbn [pbind]. apply wqf_ok; [exact Hr|]. intros _ _.
    apply fixup_slash; [reflexivity|]. eapply pre_len; [exact Ha | exact L1].
Qed.
End File.

(* ---------- top level, file class included ---------- *)
(* the narrowed class of finding F-C04-7: the file scheme is involved, there is a file base, and the
   reference is a path-relative one against a base whose shortened path does not end in '/' *)
Definition known_c04_7b (base : option url) (input : list N) : bool :=
  let l := input_new_trim_c0 input in
  match parse_scheme CUrlParser l with
  | Some (sch, rem) =>
      st_is_file (scheme_type_of sch)
      && match base with Some b => list_eqb (b_scheme b) s_file && file_rel_unsafe b rem | None => false end
  | None => match base with Some b => list_eqb (b_scheme b) s_file && file_rel_unsafe b l | None => false end
  end.

Section Top.
Variable dbg : bool.
Variable hp hpo : list N -> result host.
Variable hd : host -> list N.
Variable ovr : option (list N -> list N).

Theorem parse_url_ok3 base input :
  match base with Some b => base_ok b = true | None => True end ->
  known_c04_7b base input = false ->
  parse_url dbg hp hpo hd ovr base input <> PPanic.
Proof.
  intros Hb Hk. unfold parse_url. unfold known_c04_7b in Hk. cbv zeta in Hk.
  destruct (parse_scheme CUrlParser (input_new_trim_c0 input)) as [[sch rem]|].
  - destruct (st_is_file (scheme_type_of sch)) eqn:Ef; [|apply parse_with_scheme_ok; assumption].
    cbn [andb] in Hk. unfold parse_with_scheme. du32 (nlen sch) se E.
    destruct (scheme_type_of sch); try discriminate Ef.
    apply parse_file_ok. destruct base as [b|]; [|exact I].
    destruct (list_eqb (b_scheme b) s_file); [|exact I]. cbn [andb] in Hk.
    unfold base_ok in Hb. apply andb_true_iff in Hb. destruct Hb as [W _]. split; assumption.
  - destruct base as [b|]; [|discriminate].
    destruct (inp_starts_with_char 35 (input_new_trim_c0 input)); [apply fragment_only_ok|].
    unfold base_ok in Hb. apply andb_true_iff in Hb. destruct Hb as [W _].
    rewrite (cannot_be_a_base_eval b W).
    destruct (byte_eqb (ser b) (scheme_end b + 1) 47) eqn:Eb; cbn [negb]; [|discriminate].
    destruct (list_eqb (b_scheme b) s_file) eqn:Efile.
    + cbn [andb] in Hk. apply list_eqb_spec in Efile. rewrite Efile.
      change (st_is_file (scheme_type_of s_file)) with true. cbv iota.
      apply parse_file_ok. split; assumption.
    + rewrite (not_file_scheme _ Efile).
      apply parse_relative_ok; [exact W | apply not_file_scheme; exact Efile | apply byte_eqb_nnth; exact Eb].
Qed.
End Top.

(* the narrowed class lies inside the file class of Properties/C04.known_c04_7 *)
Lemma known_7b_file_involved base input : known_c04_7b base input = true -> file_involved base input = true.
Proof.
  unfold known_c04_7b, file_involved. cbv zeta.
  destruct (parse_scheme CUrlParser (input_new_trim_c0 input)) as [[sch rem]|].
  - intros H. apply andb_true_iff in H. tauto.
  - destruct base as [b|]; [|discriminate]. intros H. apply andb_true_iff in H. tauto.
Qed.
