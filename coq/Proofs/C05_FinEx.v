(* Proofs/C05_FinEx.v - the hypotheses of C05_components_step3 / C05_components_reach3 are met and the two steps
   that step_gate3 adds to step_gate2 are taken: with the example host parser of C02 (ex_hp) and a Display that
   prints a domain as it is and an address as a fixed non-empty text (HostWf, IpDisp):
   parse "http://h.x/a?q"; quirks set_host "o.x:81" (host AND port in one call); Url::set_ip_host(1.2.3.4);
   join "../w v" against the result. *)
From Coq Require Import String.
From RU Require Import Base.Prelude Model.HostT Model.UrlRecord Model.Parser Model.Setters Model.WF
  Proofs.ListN Proofs.C06_Suffix Proofs.C06_Host Proofs.C02_Reach Proofs.C02_AuthMain Proofs.C04_ParseTotal
  Proofs.C03_ReachParts Proofs.C03_ReachHost
  Proofs.C05_Enc Proofs.C05_Parser Proofs.C05_History Proofs.C05_Comp Proofs.C05_CompSteps Proofs.C05_CompHist
  Proofs.C05_ParseAll Proofs.C05_CompSteps2 Proofs.C05_CompReach Proofs.C05_BaseOk Proofs.C05_CompSteps3 Proofs.C03_WF Proofs.C05_Alphabet.
Open Scope N_scope.
Open Scope list_scope.

Lemma In_firstn_sub (x : N) n : forall l, In x (firstn n l) -> In x l.
Proof.
  induction n as [|n IH]; intros l H; [destruct H|]. destruct l as [|c r]; [destruct H|].
  destruct H as [H|H]; [left; exact H | right; exact (IH r H)].
Qed.

Lemma In_nfirstn_skipn_sub (x : N) n m l : In x (firstn n (skipn m l)) -> In x l.
Proof.
  intros H. apply In_firstn_sub in H. revert l H. induction m as [|m IH]; intros l H; [exact H|].
  destruct l as [|c r]; [destruct H|]. right. apply IH. exact H.
Qed.

Definition fx_hd (h : host) : list N :=
  match h with HDomain d => d | HIpv4 _ => B "1.2.3.4" | HIpv6 _ => B "[::1]" end.

Lemma ex_hp_domain s h : ex_hp s = Ok h -> exists d, h = HDomain d.
Proof.
  unfold ex_hp. destruct s as [|c r]; [intros H; inversion H; eexists; reflexivity|].
  destruct (forallb ex_hostc (c :: r)); intros H; inversion H. eexists; reflexivity.
Qed.

Lemma fx_host_wf : HostWf ex_hp ex_hp fx_hd.
Proof.
  destruct ex_host_wf as (W1 & W2 & W3). split; [|split; [|exact W3]].
  - intros s h E Hne. destruct (ex_hp_domain s h E) as (d & ->). exact (W1 s _ E Hne).
  - intros s h E Hne. destruct (ex_hp_domain s h E) as (d & ->). exact (W2 s _ E Hne).
Qed.

Lemma fx_ip_disp : IpDisp fx_hd.
Proof.
  intros h Hv. unfold host_disp_ok. destruct h as [d|a|p]; [destruct Hv | |]; cbn [hi_of_host fx_hd];
    eexists; eexists; (split; [reflexivity|]); split; discriminate.
Qed.

Definition fin_example_stmt : Prop :=
  HostWf ex_hp ex_hp fx_hd /\ IpDisp fx_hd
  /\ exists u, CReach3 true ex_hp ex_hp fx_hd u /\ ser u = B "http://1.2.3.4:81/w%20v".

Lemma fin_example : fin_example_stmt.
Proof.
  split; [exact fx_host_wf|]. split; [exact fx_ip_disp|].
  destruct (parse_url true ex_hp ex_hp fx_hd None None (B "http://h.x/a?q")) as [u0| |] eqn:E0;
    [|vm_compute in E0; discriminate ..].
  pose proof (CR3_parse true ex_hp ex_hp fx_hd None _ u0 E0) as R0. vm_compute in E0. injection E0 as <-.
  match type of R0 with CReach3 _ _ _ _ ?u =>
    destruct (apply_op true ex_hp ex_hp fx_hd u (OQHost (B "o.x:81"))) as [u1|] eqn:E1;
      [|vm_compute in E1; discriminate] end.
  pose proof E1 as E1'. vm_compute in E1'. injection E1' as <-.
  match type of E1 with apply_op _ _ _ _ ?u ?o = Some ?u' =>
    assert (CReach3 true ex_hp ex_hp fx_hd u') as R1 end.
  { eapply CR3_step; [exact R0 | | exact E1]. cbn [step_gate3]. split.
    - intros X. vm_compute in X. discriminate.
    - intros _ X. vm_compute in X. discriminate. }
  clear R0 E1.
  match type of R1 with CReach3 _ _ _ _ ?u =>
    destruct (apply_op true ex_hp ex_hp fx_hd u (OSetIpHost (HIpv4 16909060))) as [u2|] eqn:E2;
      [|vm_compute in E2; discriminate] end.
  pose proof E2 as E2'. vm_compute in E2'. injection E2' as <-.
  match type of E2 with apply_op _ _ _ _ ?u ?o = Some ?u' =>
    assert (CReach3 true ex_hp ex_hp fx_hd u') as R2 end.
  { eapply CR3_step; [exact R1 | | exact E2]. cbn [step_gate3 ip_arg]. split; [lia|].
    intros X. vm_compute in X. discriminate. }
  clear R1 E2.
  match type of R2 with CReach3 _ _ _ _ ?b =>
    destruct (parse_url true ex_hp ex_hp fx_hd None (Some b) (B "../w v")) as [u3| |] eqn:E3;
      [|vm_compute in E3; discriminate ..];
    assert (CReach3 true ex_hp ex_hp fx_hd u3) as R3
      by (eapply (CR3_join true ex_hp ex_hp fx_hd None b); [exact R2 | vm_compute; reflexivity | exact E3])
  end.
  exists u3. split; [exact R3|]. vm_compute in E3. injection E3 as <-. vm_compute. reflexivity.
Qed.

(* the hypotheses of C05_alphabet_reach are met *)
Lemma fx_host_ok : HostOK ex_hp ex_hp fx_hd.
Proof.
  assert (forall s h, ex_hp s = Ok h -> Forall ok_byte (fx_hd h)) as G.
  { intros s h E. unfold ex_hp in E. destruct s as [|c r]; [inversion E; constructor|].
    destruct (forallb ex_hostc (c :: r)) eqn:F; inversion E; subst. cbn [fx_hd].
    rewrite forallb_forall in F. apply Forall_forall. intros x Hx. specialize (F x Hx).
    unfold ex_hostc, is_alnum, is_alpha, is_lower, is_upper, is_digit in F. unfold ok_byte. lia. }
  intros h [->|[[s Hs]|[s Hs]]]; [constructor | exact (G s h Hs) | exact (G s h Hs)].
Qed.

Lemma fx_ip_okv : IpOKv fx_hd.
Proof.
  intros h Hv. destruct h as [d|a|p]; [destruct Hv | |]; cbn [fx_hd]; vm_compute; repeat constructor; discriminate.
Qed.

(* the record of fin_example: host text "1.2.3.4" has no space, so its serialization splits as alphabet_ok says *)
Definition fin_alphabet_stmt : Prop :=
  HostOK ex_hp ex_hp fx_hd /\ IpOKv fx_hd
  /\ exists u, CReach3 true ex_hp ex_hp fx_hd u /\ ser u = B "http://1.2.3.4:81/w%20v"
       /\ (has_host u = true -> ~ In 32 (piece u (host_start u) (host_end u))) /\ alphabet_ok u.

Lemma fin_alphabet : fin_alphabet_stmt.
Proof.
  split; [exact fx_host_ok|]. split; [exact fx_ip_okv|].
  destruct fin_example as (_ & _ & u & R & E). exists u. split; [exact R|]. split; [exact E|].
  assert (has_host u = true -> ~ In 32 (piece u (host_start u) (host_end u))) as Hh.
  { intros _ Hin. unfold piece in Hin.
    assert (In 32 (ser u)) as Hs.
    { unfold nfirstn, nskipn in Hin. apply (In_nfirstn_skipn_sub _ _ _ _ Hin). }
    rewrite E in Hs. vm_compute in Hs. intuition discriminate. }
  split; [exact Hh|].
  exact (creach3_alphabet true ex_hp ex_hp fx_hd fx_host_wf fx_host_ok fx_ip_disp fx_ip_okv u R Hh).
Qed.
