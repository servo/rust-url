(* Proofs/C06_PathNoAuth.v - with_path on a record WITHOUT authority (with or without the "/." marker);
   then set_path and path_segments_mut on such a URL whose path starts with '/' (not opaque) and that
   carries no marker; the new path must not start with "//" (the code inserts no marker
   there: F-C02-8). *)
From RU Require Import Base.Prelude Base.Utf8 Base.Utf8Facts Model.AsciiSet Gen.Tables Model.PercentEncoding
  Model.HostT Model.UrlRecord Model.Parser Model.Setters Model.WF
  Proofs.ListN Proofs.C03_WF Proofs.C06_List Proofs.C06_WFI Proofs.C06_Tail Proofs.C06_Steps Proofs.C06_FragQuery
  Proofs.C06_Suffix Proofs.C06_Front Proofs.C06_Port Proofs.C06_HostNone Proofs.C06_PathParser Proofs.C06_Path Proofs.C06_Segments.

Lemma ss_prefix_cases (P R : list N) : starts_with s_ss P = false ->
  nnth (P ++ R) 0 = Some 47 -> nnth (P ++ R) 1 = Some 47 -> nnth (P ++ R) (nlen P) = Some 47.
Proof.
  intros H C1 C2. destruct P as [|c1 [|c2 r]].
  - exact C1.
  - exact C2.
  - cbn in C1, C2. inversion C1; inversion C2; subst. cbn in H. discriminate.
Qed.

(* the new path starts with "//" exactly when the new text P does: what follows P is not a '/' *)
Lemma with_path_2slash u P : wf_b u = true -> path_starts_with_2slash (with_path u P) = starts_with s_ss P.
Proof.
  intros W. unfold path_starts_with_2slash. change (path_start (with_path u P)) with (path_start u).
  rewrite (with_path_skip u P W).
  destruct (starts_with s_ss P) eqn:E; [apply starts_with_app_l; exact E|].
  destruct (starts_with s_ss (P ++ nskipn (path_end u) (ser u))) eqn:E2; [|reflexivity]. exfalso.
  assert (forall k, nnth (ser (with_path u P)) (path_start u + k) = nnth (P ++ nskipn (path_end u) (ser u)) k) as Hn
    by (intros k; rewrite <- nnth_nskipn, (with_path_skip u P W); reflexivity).
  apply starts_with_split in E2. change (length s_ss) with 2%nat in E2.
  assert (nnth (P ++ nskipn (path_end u) (ser u)) 0 = Some 47 /\ nnth (P ++ nskipn (path_end u) (ser u)) 1 = Some 47) as [C1 C2]
    by (rewrite E2; split; reflexivity).
  pose proof (ss_prefix_cases P _ E C1 C2) as C3. rewrite <- Hn in C3.
  apply (end_byte_not _ _ 47 (with_path_after u P W)); [lia | lia | exact C3].
Qed.

(* with_path on a record without authority, with or without the "/." marker *)
Section WithPathNoAuth.
Variables (dbg : bool) (u : url) (P : list N).
Hypothesis W : wf_b u = true.
Hypothesis Ha : has_authority_b u = false.

Local Notation u' := (with_path u P).
Local Notation ps := (path_start u).

Lemma wg_bounds : username_end u = scheme_end u + 1 /\ host_start u = scheme_end u + 1 /\ host_end u = scheme_end u + 1
  /\ scheme_end u + 1 <= ps /\ ps <= nlen (ser u).
Proof.
  pose proof (wf_noauth_facts u W Ha) as F. pose proof (nf_len F). pose proof (nf_ue F). pose proof (nf_hs F). pose proof (nf_he F).
  destruct (nf_ps F) as [E|(E & _)]; lia.
Qed.

(* layout without marker: the result has an authority exactly when the new path starts with "//" *)
Lemma na_plain : ps = scheme_end u + 1 -> has_authority_b u' = starts_with s_ss P.
Proof.
  intros E. destruct (wf_scheme_facts u W) as (_ & Hc & _).
  unfold has_authority_b. change (scheme_end u') with (scheme_end u).
  rewrite (nskipn_cons_of_nnth _ _ 58)
    by (rewrite (pre_nnth ps _ _ _ (with_path_pre u P W)) by lia; apply byte_eqb_nnth; exact Hc).
  rewrite <- E. change (starts_with s_css (58 :: nskipn ps (ser u'))) with (path_starts_with_2slash u').
  exact (with_path_2slash u P W).
Qed.

(* layout with marker: "/." stays in front of the path, the result never has an authority *)
Lemma na_marker : ps = scheme_end u + 3 -> has_authority_b u' = false.
Proof.
  intros E. rewrite (has_authority_b_pre ps u u' (with_path_pre u P W)) by (try lia; reflexivity). exact Ha.
Qed.

Hypothesis HP1 : forallb no_qh P = true.
Hypothesis Hna' : has_authority_b u' = false.
Hypothesis Hmk : ps = scheme_end u + 3 -> starts_with s_ss P = true.

Lemma wg_wf : wf_b u' = true.
Proof.
  destruct wg_bounds as (B1 & B2 & B3 & B4 & B5). pose proof (with_path_len u P W) as Hl.
  destruct (with_path_bounds u P W) as (_ & B6 & B7).
  pose proof W as W0. apply wf_b_iff in W0. rewrite Ha in W0. destruct W0 as (S & NA & _).
  apply wf_b_iff. rewrite Hna'. split; [|split].
  - apply (scheme_ok_pre ps u u'); [apply with_path_pre; exact W | lia | reflexivity | exact S].
  - apply (noauth_ok_pre ps u u' (with_path_pre u P W)); [lia | rewrite Hl; lia
      | reflexivity | reflexivity | reflexivity | reflexivity | reflexivity | reflexivity | reflexivity | | exact NA].
    intros E. rewrite (with_path_skip u P W). apply starts_with_app_l. apply Hmk. exact E.
  - apply with_path_qf_ok; assumption.
Qed.

Lemma wg_front : same_front dbg u u'.
Proof.
  destruct wg_bounds as (B1 & B2 & B3 & B4 & B5). pose proof (wf_noauth_facts u W Ha) as F.
  split; [|split; [|split; [|split]]].
  - apply (scheme_same u u' ps W wg_wf (with_path_pre u P W)); [reflexivity | lia].
  - rewrite (username_eval dbg u' wg_wf), (username_eval dbg u W). f_equal. unfold piece. cbn [pidx].
    rewrite Hna', Ha. change (scheme_end u') with (scheme_end u). change (username_end u') with (username_end u).
    rewrite (nf_ue F), !N.sub_diag. reflexivity.
  - rewrite (password_piece dbg u' wg_wf), (password_piece dbg u W).
    unfold has_password_b. rewrite Hna', Ha. reflexivity.
  - rewrite (host_str_eval u' wg_wf), (host_str_eval u W). change (has_host u') with (has_host u).
    unfold has_host. rewrite (nf_host F). reflexivity.
  - reflexivity.
Qed.

Lemma wg_host_text_ok : host_text_ok u'.
Proof using W Ha.
  intros Hh. change (has_host u') with (has_host u) in Hh. unfold has_host in Hh.
  rewrite (nf_host (wf_noauth_facts u W Ha)) in Hh. discriminate.
Qed.

End WithPathNoAuth.

Lemma with_path_noauth dbg u P : wf_b u = true -> has_authority_b u = false -> forallb no_qh P = true ->
  has_authority_b (with_path u P) = false ->
  (path_start u = scheme_end u + 3 -> starts_with s_ss P = true) ->
  let u' := with_path u P in
  wf_b u' = true /\ host_text_ok u' /\ same_front dbg u u'
  /\ query dbg u' = query dbg u /\ fragment dbg u' = fragment dbg u /\ path u' = Some P.
Proof.
  intros W Ha HP1 Hna Hmk u'. pose proof (wg_wf u P W Ha HP1 Hna Hmk) as W'. splits.
  - exact W'.
  - exact (wg_host_text_ok u P W Ha).
  - exact (wg_front dbg u P W Ha HP1 Hna Hmk).
  - exact (with_path_query dbg u P W W').
  - exact (with_path_fragment dbg u P W W').
  - exact (with_path_path u P W W').
Qed.

(* no marker and a new path that is empty or '/'-led without "//" *)
Section WithPathNA.
Variables (dbg : bool) (u : url) (P : list N).
Hypothesis W : wf_b u = true.
Hypothesis Ha : has_authority_b u = false.
Hypothesis Hnm : path_start u = scheme_end u + 1.
Hypothesis HP1 : forallb no_qh P = true.
Hypothesis HP2 : P = [] \/ exists r, P = 47 :: r.
Hypothesis HP3 : starts_with s_ss P = false.

Local Notation u' := (with_path u P).

Local Notation ps := (path_start u).

Lemma wn_byte_ps_not58 : byte_eqb (ser u') ps 58 = false.
Proof using W Ha Hnm HP2. exact (with_path_byte_ps_not58 u P W HP2). Qed.

Lemma wn_has_authority : has_authority_b u' = false.
Proof using W Ha Hnm HP2 HP3. rewrite (na_plain u P W Hnm). exact HP3. Qed.

Lemma wn_all d : wf_b u' = true /\ host_text_ok u' /\ same_front d u u'
  /\ query d u' = query d u /\ fragment d u' = fragment d u /\ path u' = Some P.
Proof using W Ha Hnm HP1 HP2 HP3. apply with_path_noauth; try assumption; [exact wn_has_authority | lia]. Qed.

Lemma wn_wf : wf_b u' = true.
Proof. exact (proj1 (wn_all true)). Qed.
Lemma wn_front : same_front dbg u u'.
Proof. exact (proj1 (proj2 (proj2 (wn_all dbg)))). Qed.
Lemma wn_query : query dbg u' = query dbg u.
Proof. exact (proj1 (proj2 (proj2 (proj2 (wn_all dbg))))). Qed.
Lemma wn_fragment : fragment dbg u' = fragment dbg u.
Proof. exact (proj1 (proj2 (proj2 (proj2 (proj2 (wn_all dbg)))))). Qed.
Lemma wn_path : path u' = Some P.
Proof. exact (proj2 (proj2 (proj2 (proj2 (proj2 (wn_all true)))))). Qed.
Lemma wn_host_text_ok : host_text_ok u'.
Proof using W Ha. exact (wg_host_text_ok u P W Ha). Qed.

End WithPathNA.

Lemma noauth_front_end u : wf_b u = true -> ends_with_byte 47 (nfirstn (scheme_end u + 1) (ser u)) = false.
Proof.
  intros W. destruct (wf_scheme_facts u W) as (Hse & Hc & Hlt). apply byte_eqb_nnth in Hc.
  pose proof (piece_app (ser u) 0 (scheme_end u) (scheme_end u + 1) ltac:(lia) ltac:(lia)) as E.
  rewrite !N.sub_0_r, nskipn_0 in E. replace (scheme_end u + 1 - scheme_end u) with 1 in E by lia.
  rewrite (piece_one _ _ _ Hc) in E. rewrite <- E. unfold ends_with_byte. rewrite rev_app_distr. reflexivity.
Qed.

Definition noauth_slash_path (u : url) : Prop :=
  has_authority_b u = false /\ byte_eqb (ser u) (scheme_end u + 1) 47 = true /\ path_start u = scheme_end u + 1.

Lemma noauth_result dbg u P : wf_b u = true -> noauth_slash_path u -> new_path_ok P ->
  path_starts_with_2slash (with_path u P) = false ->
  let u' := with_path u P in
  wf_b u' = true /\ host_text_ok u' /\ same_front dbg u u'
  /\ query dbg u' = query dbg u /\ fragment dbg u' = fragment dbg u /\ path u' = Some P.
Proof.
  intros W (Ha & Hsl & Hnm) (HP1 & HP2) Hss. rewrite (with_path_2slash u P W) in Hss.
  apply with_path_noauth; try assumption; [rewrite (na_plain u P W Hnm); exact Hss | lia].
Qed.

(* Url::set_path on an authority-less URL with a '/'-leading path and no marker; the result must not
   start with "//" (F-C02-8 otherwise) *)
Theorem set_path_noauth_ok dbg u p u' : wf_b u = true -> noauth_slash_path u -> usv_list p ->
  set_path dbg u p = Some u' -> path_starts_with_2slash u' = false ->
  wf_b u' = true /\ host_text_ok u' /\ same_front dbg u u'
  /\ query dbg u' = query dbg u /\ fragment dbg u' = fragment dbg u
  /\ exists P, path u' = Some P /\ new_path_ok P.
Proof.
  intros W NA Hp H Hss. pose proof NA as (Ha & Hsl & Hnm).
  assert (auth_end_ok u) as Hx.
  { unfold auth_end_ok. intros _ _. rewrite Hnm. apply noauth_front_end. exact W. }
  destruct (set_path_eval dbg u p u' W Hsl Hp Hx H) as (P & hh & rem & -> & HP & _).
  destruct (noauth_result dbg u P W NA HP Hss) as (A & B & C & D & E & F).
  splits; try assumption. exists P. split; assumption.
Qed.

Theorem path_segments_session_noauth_ok dbg u ops u' : wf_b u = true -> noauth_slash_path u ->
  Forall psm_op_usv ops -> path_segments_session dbg u ops = Some (u', SOk) ->
  path_starts_with_2slash u' = false ->
  wf_b u' = true /\ host_text_ok u' /\ same_front dbg u u'
  /\ query dbg u' = query dbg u /\ fragment dbg u' = fragment dbg u
  /\ exists P, path u' = Some P /\ new_path_ok P.
Proof.
  intros W NA Hops H Hss. pose proof NA as (Ha & Hsl & Hnm).
  assert (path_end u = path_start u \/ byte_eqb (ser u) (path_start u) 47 = true) as Hhead
    by (right; rewrite Hnm; exact Hsl).
  destruct (path_segments_session_eval dbg u ops u' W Hsl Hhead Hops H) as (P & -> & HP).
  destruct (noauth_result dbg u P W NA HP Hss) as (A & B & C & D & E & F).
  splits; try assumption. exists P. split; assumption.
Qed.
