(* Proofs/C05_ParseUI.v - the userinfo and path clauses of C05 on the raw record, and what the parser
   states establish for them.
     ui_raw s se ue hs : the username slice [se+3, ue) and the password slice [ue+1, hs-1) of s are free
                         of D_USERINFO (both slices are empty in the layouts without userinfo);
     path_raw p        : a path text that starts with '/' consists of bytes outside D_PATH;
     up_ok u           : both, for the slices of the record u.
   On a well-formed record up_ok together with the query / fragment clauses IS comp_ok (up_comp, comp_up).
   Then: the userinfo state writes "un [: pw] @" with un, pw free of D_USERINFO (any input numbers);
   the query / fragment states and with_query_and_fragment keep both clauses. *)
From RU Require Import Base.Prelude Base.Utf8 Model.AsciiSet Gen.Tables Model.PercentEncoding
  Model.HostT Model.UrlRecord Model.Parser Model.Setters Model.WF
  Proofs.ListN Proofs.C06_List Proofs.C02_Parts Proofs.C03_WF Proofs.C06_WFI Proofs.C06_Tail Proofs.C06_Steps
  Proofs.C04_Parse Proofs.C04_ParseTotal Proofs.C03_ReachParts
  Proofs.C05_Enc Proofs.C05_Parser Proofs.C05_Setters Proofs.C05_History Proofs.C05_Sharp Proofs.C05_Frag Proofs.C05_Query
  Proofs.C05_Comp Proofs.C05_PathClean Proofs.C05_CompSteps.

Lemma free_pq l : free D_PATH l -> forallb pq l = true.
Proof.
  intros H. apply forallb_forall. intros c Hc. unfold pq. apply negb_true_iff.
  destruct (existsb (N.eqb c) D_PATH) eqn:E; [|reflexivity]. exfalso.
  apply existsb_exists in E. destruct E as (d & Hd & E). apply N.eqb_eq in E. subst d. exact (H c Hd Hc).
Qed.

Lemma pq_free' l : forallb pq l = true -> free D_PATH l.
Proof. intros H d Hd. exact (pq_free l H d Hd). Qed.

Lemma free_cons D c l : ~ In c D -> free D l -> free D (c :: l).
Proof. intros Hc Hl d Hd [E|Hin]; [subst; contradiction | exact (Hl d Hd Hin)]. Qed.

(* the clauses on the raw record *)
Definition ui_raw (s : list N) (se ue hs : N) : Prop :=
  free D_USERINFO (nfirstn (ue - (se + 3)) (nskipn (se + 3) s))
  /\ free D_USERINFO (nfirstn (hs - 1 - (ue + 1)) (nskipn (ue + 1) s)).

Definition path_raw (p : list N) : Prop := forall r, p = 47 :: r -> forallb pq p = true.

Definition up_ok (u : url) : Prop :=
  ui_raw (ser u) (scheme_end u) (username_end u) (host_start u)
  /\ path_raw (piece u (path_start u) (path_end u)).

Lemma ui_raw_trivial s se ue hs : ue <= se + 3 -> hs <= ue + 2 -> ui_raw s se ue hs.
Proof.
  intros H1 H2. unfold ui_raw. replace (ue - (se + 3)) with 0 by lia. replace (hs - 1 - (ue + 1)) with 0 by lia.
  split; apply free_nil.
Qed.

Lemma ui_raw_pre a s s' se ue hs : agree_pre a s s' -> ue <= a -> hs <= a + 1 ->
  ui_raw s se ue hs -> ui_raw s' se ue hs.
Proof.
  intros H H1 H2 [A B]. unfold ui_raw.
  rewrite (pre_piece a s s' (se + 3) ue H H1).
  rewrite (pre_piece a s s' (ue + 1) (hs - 1) H ltac:(lia)). split; assumption.
Qed.

Lemma path_raw_pq p : forallb pq p = true -> path_raw p.
Proof. intros H r _. exact H. Qed.

Lemma path_raw_nil : path_raw [].
Proof. intros r H. discriminate. Qed.

(* up_ok <-> comp_ok on a well-formed record *)
Lemma path_end_pidx u : pidx u AfterPath = path_end u.
Proof. reflexivity. Qed.

Theorem up_comp dbg u : wf_b u = true -> up_ok u ->
  (forall q, query dbg u = Some (Some q) -> free D_QUERY q) ->
  (forall f, fragment dbg u = Some (Some f) -> free D_FRAGMENT f) -> comp_ok dbg u.
Proof.
  intros W [[U1 U2] P] Q F. split; [|split; [|split; [|split; assumption]]].
  - intros un Hun. rewrite (username_eval dbg u W) in Hun. inversion Hun as [E]. unfold piece. cbn [pidx].
    destruct (has_authority_b u) eqn:Ha; [exact U1|].
    rewrite (nf_ue (wf_noauth_facts u W Ha)), N.sub_diag. apply free_nil.
  - intros pw Hpw. rewrite (password_piece dbg u W) in Hpw. destruct (has_password_b u) eqn:Hp; [|discriminate].
    inversion Hpw as [E]. unfold piece. cbn [pidx]. rewrite Hp. exact U2.
  - intros p r Hp Hr. rewrite (path_eval u W) in Hp. injection Hp as <-. apply pq_free'. exact (P r Hr).
Qed.

Theorem comp_up dbg u : wf_b u = true -> comp_ok dbg u -> up_ok u.
Proof.
  intros W (A & B & C & _ & _). split.
  - destruct (has_authority_b u) eqn:Ha.
    + pose proof (wf_auth_facts u W Ha) as F. split.
      * pose proof (A _ (username_eval dbg u W)) as X. unfold piece in X. cbn [pidx] in X. rewrite Ha in X. exact X.
      * destruct (has_password_b u) eqn:Hp.
        -- pose proof (B (piece u (pidx u BeforePassword) (pidx u AfterPassword))) as X.
           rewrite (password_piece dbg u W), Hp in X. specialize (X eq_refl). unfold piece in X. cbn [pidx] in X.
           rewrite Hp in X. exact X.
        -- pose proof (af_ue F); pose proof (af_hs F); pose proof (af_he F); pose proof (af_ps F); pose proof (af_len F).
           destruct (af_userinfo F) as [(U1 & U2)|[(U1 & U2 & U3 & U4)|(U1 & U2 & U3 & U4)]].
           ++ replace (host_start u - 1 - (username_end u + 1)) with 0 by lia. apply free_nil.
           ++ exfalso. unfold has_password_b in Hp. rewrite Ha, U2 in Hp.
              replace (username_end u =? nlen (ser u)) with false in Hp by lia. discriminate.
           ++ replace (host_start u - 1 - (username_end u + 1)) with 0 by lia. apply free_nil.
    + pose proof (wf_noauth_facts u W Ha) as F. apply ui_raw_trivial; rewrite ?(nf_ue F), ?(nf_hs F); lia.
  - intros r Hr. apply free_pq. apply (C _ r); [|exact Hr]. rewrite (path_eval u W). reflexivity.
Qed.

(* the bounds of the userinfo slices on a well-formed record *)
Lemma wf_ui_bounds u : wf_b u = true -> username_end u <= path_start u /\ host_start u <= path_start u.
Proof.
  intros W. destruct (has_authority_b u) eqn:Ha.
  - pose proof (wf_auth_facts u W Ha) as F. pose proof (af_hs F); pose proof (af_he F); pose proof (af_ps F). lia.
  - pose proof (wf_noauth_facts u W Ha) as F. rewrite (nf_ue F), (nf_hs F).
    destruct (nf_ps F) as [E|(E & _)]; lia.
Qed.

Lemma userinfo_char_free c : free D_USERINFO (pe_display T_USERINFO (utf8_encode [c])).
Proof.
  apply comp_clean_free. apply pe_display_clean; [apply T_USERINFO_facts | apply T_USERINFO_facts | reflexivity].
Qed.

Definition ui_st (ser0 : list N) (n : N) (ser : list N) (uend : option N) (hpw : bool) : Prop :=
  match uend with
  | None => hpw = false /\ exists un, ser = ser0 ++ un /\ free D_USERINFO un
  | Some i => exists un, free D_USERINFO un /\ i = nlen ser0 + nlen un
                /\ if hpw then exists pw, free D_USERINFO pw /\ ser = ser0 ++ un ++ [58] ++ pw
                   else n = 0 /\ ser = ser0 ++ un
  end.

Lemma uloop_ui ser0 l : forall n ser uend hpw hun ser1 uend1 hpw1 hun1,
  userinfo_loop l n ser uend hpw hun = POk (ser1, uend1, hpw1, hun1) ->
  ui_st ser0 n ser uend hpw -> ui_st ser0 0 ser1 uend1 hpw1.
Proof.
  induction l as [|c r IH]; intros n ser uend hpw hun ser1 uend1 hpw1 hun1 H I.
  - cbn [userinfo_loop] in H. destruct (n =? 0) eqn:E0; [|discriminate]. inversion H; subst.
    apply N.eqb_eq in E0. subst n. exact I.
  - cbn [userinfo_loop] in H. destruct (n =? 0) eqn:E0.
    { inversion H; subst. apply N.eqb_eq in E0. subst n. exact I. }
    apply N.eqb_neq in E0.
    destruct (is_tnl c); [eapply IH; [exact H | exact I]|].
    destruct uend as [i|].
    + rewrite andb_false_r in H. destruct I as (un & Fu & Ei & I). destruct hpw.
      * destruct I as (pw & Fp & ->). eapply IH; [exact H|]. unfold push_encoded.
        exists un. split; [exact Fu|]. split; [exact Ei|].
        exists (pw ++ pe_display T_USERINFO (utf8_encode [c])).
        split; [apply free_app; [exact Fp | apply userinfo_char_free]|]. rewrite <- !app_assoc. reflexivity.
      * destruct I as [I _]. contradiction.
    + rewrite andb_true_r in H. destruct I as (-> & un & -> & Fu).
      destruct (c =? 58).
      * destruct (to_u32 (nlen (ser0 ++ un))) as [ue| |] eqn:Eu; cbn [pbind] in H; try discriminate.
        apply to_u32_inv in Eu. destruct Eu as [-> _].
        destruct (0 <? n - 1) eqn:En.
        -- eapply IH; [exact H|]. exists un. split; [exact Fu|]. split; [apply nlen_app|].
           exists []. split; [apply free_nil|]. rewrite <- !app_assoc. reflexivity.
        -- eapply IH; [exact H|]. exists un. split; [exact Fu|]. split; [apply nlen_app|]. split; [lia | reflexivity].
      * eapply IH; [exact H|]. unfold push_encoded. split; [reflexivity|].
        exists (un ++ pe_display T_USERINFO (utf8_encode [c])). rewrite <- app_assoc. split; [reflexivity|].
        apply free_app; [exact Fu | apply userinfo_char_free].
Qed.

(* "un", "un@" or "un:pw@" behind ser0 *)
Theorem parse_userinfo_ui st ser0 l ser1 ue rem :
  parse_userinfo st ser0 l = POk (ser1, ue, rem) ->
  exists un t, free D_USERINFO un /\ ue = nlen ser0 + nlen un /\ ser1 = ser0 ++ un ++ t
    /\ (t = [] \/ t = [64] \/ exists pw, free D_USERINFO pw /\ t = [58] ++ pw ++ [64]).
Proof.
  assert (forall u, u = nlen ser0 -> exists un t, free D_USERINFO un /\ u = nlen ser0 + nlen un
            /\ ser0 = ser0 ++ un ++ t
            /\ (t = [] \/ t = [64] \/ exists pw, free D_USERINFO pw /\ t = [58] ++ pw ++ [64])) as Hnone.
  { intros u ->. exists [], []. rewrite nlen_nil, N.add_0_r, !app_nil_r.
    split; [apply free_nil|]. split; [reflexivity|]. split; [reflexivity | left; reflexivity]. }
  unfold parse_userinfo. destruct (scan_last_at (st_is_special st) l 0 None) as [[n rm]|].
  - destruct n as [|p].
    + destruct (inp_next rm) as [[c r]|]; [|discriminate].
      destruct ((c =? 47) || (c =? 63) || (c =? 35) || st_is_special st && (c =? 92)); [discriminate|].
      destruct (to_u32 (nlen ser0)) as [u| |] eqn:Eu; cbn [pbind]; try discriminate.
      apply to_u32_inv in Eu. destruct Eu as [Eu _]. intros H. inversion H; subst. apply Hnone. reflexivity.
    + destruct (userinfo_loop l (N.pos p) ser0 None false false) as [[[[s1 uend] hpw] hun]| |] eqn:E; cbn [pbind]; try discriminate.
      assert (ui_st ser0 (N.pos p) ser0 None false) as I0.
      { split; [reflexivity|]. exists []. rewrite app_nil_r. split; [reflexivity | apply free_nil]. }
      pose proof (uloop_ui ser0 l _ _ _ _ _ _ _ _ _ E I0) as I.
      destruct uend as [i|].
      * cbn [pbind]. intros H. inversion H; subst. destruct I as (un & Fu & Ei & I). destruct hpw.
        -- destruct I as (pw & Fp & ->). rewrite orb_true_r. exists un, ([58] ++ pw ++ [64]).
           split; [exact Fu|]. split; [exact Ei|]. split; [rewrite <- !app_assoc; reflexivity|].
           right. right. exists pw. split; [exact Fp | reflexivity].
        -- destruct I as (_ & ->). rewrite orb_false_r. destruct hun.
           ++ exists un, [64]. split; [exact Fu|]. split; [exact Ei|]. split; [rewrite <- app_assoc; reflexivity|].
              right. left. reflexivity.
           ++ exists un, []. rewrite app_nil_r. split; [exact Fu|]. split; [exact Ei|]. split; [reflexivity | left; reflexivity].
      * destruct I as (-> & un & -> & Fu).
        destruct (to_u32 (nlen (ser0 ++ un))) as [u| |] eqn:Eu; cbn [pbind]; try discriminate.
        apply to_u32_inv in Eu. destruct Eu as [-> _]. intros H. inversion H; subst. rewrite orb_false_r.
        destruct hun.
        -- exists un, [64]. split; [exact Fu|]. split; [apply nlen_app|]. split; [rewrite <- app_assoc; reflexivity|].
           right. left. reflexivity.
        -- exists un, []. rewrite app_nil_r. split; [exact Fu|]. split; [apply nlen_app|]. split; [reflexivity | left; reflexivity].
  - destruct (to_u32 (nlen ser0)) as [u| |] eqn:Eu; cbn [pbind]; try discriminate.
    apply to_u32_inv in Eu. destruct Eu as [Eu _]. intros H. inversion H; subst. apply Hnone. reflexivity.
Qed.

(* the raw clause for what the userinfo state leaves behind "scheme://" *)
Lemma userinfo_ui_raw st se ser0 l ser1 ue rem : nlen ser0 = se + 3 ->
  parse_userinfo st ser0 l = POk (ser1, ue, rem) ->
  ui_raw ser1 se ue (nlen ser1) /\ se + 3 <= ue /\ ue <= nlen ser1 /\ exists x, ser1 = ser0 ++ x.
Proof.
  intros L0 H. destruct (parse_userinfo_ui st ser0 l ser1 ue rem H) as (un & t & Fu & -> & -> & Ht).
  split; [|split; [lia|split; [rewrite !nlen_app; lia | eexists; reflexivity]]].
  unfold ui_raw. rewrite <- L0. replace (nlen ser0 + nlen un - nlen ser0) with (nlen un) by lia.
  rewrite nskipn_app_exact. rewrite (nfirstn_app_exact un t). split; [exact Fu|].
  replace (ser0 ++ un ++ t) with ((ser0 ++ un) ++ t) by (rewrite <- app_assoc; reflexivity).
  replace (nlen ser0 + nlen un) with (nlen (ser0 ++ un)) by apply nlen_app.
  destruct Ht as [->|[->|(pw & Fp & ->)]].
  - rewrite app_nil_r. replace (nlen (ser0 ++ un) - 1 - (nlen (ser0 ++ un) + 1)) with 0 by lia. apply free_nil.
  - rewrite nlen_app. change (nlen [64]) with 1.
    replace (nlen (ser0 ++ un) + 1 - 1 - (nlen (ser0 ++ un) + 1)) with 0 by lia. apply free_nil.
  - rewrite nskipn_app_ge by lia. replace (nlen (ser0 ++ un) + 1 - nlen (ser0 ++ un)) with 1 by lia.
    change (nskipn 1 ([58] ++ pw ++ [64])) with (pw ++ [64]).
    rewrite !nlen_app. change (nlen [58]) with 1. change (nlen [64]) with 1.
    replace (nlen ser0 + nlen un + (1 + (nlen pw + 1)) - 1 - (nlen ser0 + nlen un + 1)) with (nlen pw) by lia.
    rewrite nfirstn_app_exact. exact Fp.
Qed.

Lemma ui_raw_app s t se ue hs : ue <= nlen s -> hs <= nlen s + 1 -> ui_raw s se ue hs -> ui_raw (s ++ t) se ue hs.
Proof. intros H1 H2. exact (ui_raw_pre (nlen s) s _ se ue hs (agree_pre_app_r s t) H1 H2). Qed.

(* the query / fragment states keep both clauses *)
Lemma pqf_up ovr st se0 s rem s2 qs fs se ue hs he hi pt ps :
  parse_query_and_fragment ovr CUrlParser st se0 s rem = POk (s2, qs, fs) ->
  ps <= nlen s -> (forall t, ui_raw (s ++ t) se ue hs) -> path_raw (nskipn ps s) ->
  up_ok (mkUrl s2 se ue hs he hi pt ps qs fs).
Proof.
  intros H Lp U P. destruct (pqf_shape _ _ _ _ _ _ _ _ H) as (q & f & -> & -> & -> & _).
  split; cbn [ser scheme_end username_end host_start path_start].
  - apply U.
  - assert (path_end (mkUrl (s ++ qf_text q f) se ue hs he hi pt ps (qf_qs (nlen s) q) (qf_fs (nlen s) q f)) = nlen s) as E.
    { unfold path_end. cbn [query_start fragment_start ser]. destruct q as [x|]; [reflexivity|].
      destruct f as [y|]; cbn [qf_qs qf_fs qf_qtext]; [rewrite nlen_nil; lia|].
      unfold qf_text. cbn [qf_qtext qf_ftext app]. rewrite app_nil_r. reflexivity. }
    rewrite E. unfold piece. cbn [ser path_start]. rewrite nskipn_app_le by exact Lp.
    rewrite nfirstn_app_le by (rewrite nlen_nskipn; lia). rewrite nfirstn_all by (rewrite nlen_nskipn; lia). exact P.
Qed.

Lemma nskipn_ins a b c n : nlen a = n -> nskipn (n + nlen b) (a ++ b ++ c) = c.
Proof. intros <-. rewrite app_assoc, <- nlen_app. apply nskipn_app_exact. Qed.

(* the hypothesis G: the record has no userinfo at all, or the serialization has "://" behind the
   scheme and the path starts behind the authority *)
Lemma wqf_up ovr st se ue hs he hi pt ps s rem u :
  with_query_and_fragment ovr CUrlParser st se ue hs he hi pt ps s rem = POk u ->
  ps <= nlen s ->
  ((ue <= se + 3 /\ hs <= ue + 2)
   \/ (se + 3 <= ps /\ ue <= ps /\ hs <= ps /\ starts_with s_css (nskipn se s) = true)) ->
  ui_raw s se ue hs -> path_raw (nskipn ps s) -> up_ok u.
Proof.
  intros H Lp G U P.
  destruct (with_query_and_fragment_steps ovr _ _ _ _ _ _ _ _ _ _ _ _ H) as (s1 & ps1 & s2 & qs & fs & F & Hb & ->).
  assert (nskipn ps1 s1 = nskipn ps s /\ ps1 <= nlen s1
          /\ ((s1 = s /\ ps1 = ps) \/ ps = se + 1
              \/ (ps = se + 3 /\ list_eqb (nfirstn (ps - se) (nskipn se s)) [58; 47; 46] = true))) as (E1 & E2 & E3).
  { assert (nlen (nfirstn ps s) = ps) as Lf by (apply nlen_nfirstn; exact Lp).
    destruct F as [|Eps _|Eps E3 _].
    - split; [reflexivity|]. split; [exact Lp | left; split; reflexivity].
    - split; [|split; [|right; left; exact Eps]].
      + exact (nskipn_ins (nfirstn ps s) [47; 46] (nskipn ps s) ps Lf).
      + rewrite !nlen_app, Lf, nlen_nskipn. change (nlen [47; 46]) with 2. lia.
    - assert (nlen (nfirstn se s) = se) as Ls by (apply nlen_nfirstn; lia).
      split; [|split; [|right; right; split; assumption]].
      + replace (ps - 2) with (se + nlen [58]) by (change (nlen [58]) with 1; lia).
        exact (nskipn_ins (nfirstn se s) [58] (nskipn ps s) se Ls).
      + rewrite !nlen_app, Ls, nlen_nskipn. change (nlen [58]) with 1. lia. }
  rewrite <- E1 in P.
  destruct G as [(G1 & G2)|(G1 & G2 & G3 & G4)].
  - apply (pqf_up ovr st se s1 rem s2 qs fs se ue hs he hi pt ps1 Hb E2); [|exact P].
    intros t. apply ui_raw_trivial; assumption.
  - destruct E3 as [(-> & ->)|[E3|(E3 & E4)]].
    + apply (pqf_up ovr st se s rem s2 qs fs se ue hs he hi pt ps Hb Lp); [|exact P].
      intros t. apply ui_raw_app; [lia | lia | exact U].
    + lia.
    + exfalso. apply list_eqb_spec in E4. replace (ps - se) with 3 in E4 by lia.
      rewrite (css_dot_false _ E4) in G4. discriminate.
Qed.
