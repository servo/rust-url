(* Proofs/C08_Stmt.v - the quantifier of the absolute law.
   C08_absolute_statement2 (all records of Reachable2, the second quantifier of C02) is FALSE: the class F-C07-8 that
   refutes C02_statement (C02_Reach4.statement_refuted) refutes it too - a://:pw@h/p -> quirks::set_host("") gives
   a://:pw@/p inside Reachable2, and that text does not parse (EmptyHost), with or without a base.
   absolute_statement4 quantifies over Reachable4 (C02_Stmt4: steps outside known_step3) and carries
   host_nonempty, as C02_statement4 does; its proved part is C08_Reach.absolute_reach. *)
From RU Require Import Proofs.C15_Ser.
From Coq Require Import String.
From RU Require Import Base.Prelude Base.Utf8 Base.Utf8Facts Model.AsciiSet Gen.Tables
  Model.PercentEncoding Model.HostT Model.Host Model.UrlRecord Model.Parser Model.Setters Model.WF
  Proofs.ListN Proofs.C02_Reach Proofs.C02_AuthParts Proofs.C02_Hist Proofs.C02_Canon Proofs.C02_ReachPartial
  Proofs.C02_Reach3 Proofs.C02_SetHostCanon Proofs.C02_Reach4 Proofs.C02_Stmt4 Proofs.C09_Host Proofs.C02_HistInst.
Open Scope N_scope.
Open Scope list_scope.

Definition absolute_statement2 : Prop :=
  forall dbg hp hpo hd, HostOK2 hp hpo hd ->
  forall u b, Reachable2 dbg hp hpo hd u -> Reachable2 dbg hp hpo hd b ->
  parse_url dbg hp hpo hd None (Some b) (utf8_lossy (ser u)) = POk u.

Lemma w10_join :
  match parse_url true mhp host_parse_opaque host_display None (Some w10_u0) (utf8_lossy (ser w10_u1)) with
  | PErr EmptyHost => true | _ => false end = true.
Proof. vm_compute. reflexivity. Qed.

Theorem absolute_statement2_refuted : ~ absolute_statement2.
Proof.
  intros H. destruct w10_facts as (E0 & K0 & KS & E1 & K1 & _ & _).
  assert (R0 : Reachable2 true mhp host_parse_opaque host_display w10_u0)
    by (eapply R2_parse; [exact w10_input_usv | exact E0 | exact K0]).
  assert (R1 : Reachable2 true mhp host_parse_opaque host_display w10_u1).
  { eapply R2_step; [exact R0 | | exact KS | exact E1 | exact K1]. constructor. }
  pose proof (H true mhp host_parse_opaque host_display HostOK2_inhabited w10_u1 w10_u0 R1 R0) as F.
  pose proof w10_join as J. rewrite F in J. discriminate J.
Qed.

(* the statement over Reachable4, the quantifier of C02_statement4 *)
Definition absolute_statement4 : Prop :=
  forall dbg hp hpo hd, HostOK2 hp hpo hd -> host_nonempty hp hpo ->
  forall u b, Reachable4 dbg hp hpo hd u -> Reachable4 dbg hp hpo hd b ->
  parse_url dbg hp hpo hd None (Some b) (utf8_lossy (ser u)) = POk u.

