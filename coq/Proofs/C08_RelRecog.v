(* Proofs/C08_RelRecog.v - the computable recognisers of C08_RelCanon.v accept C02's canonical forms:
   an explicit record hier_url passes hier_canon (the recogniser re-builds exactly that record from the
   accessors), rel_base_ok (front "scheme://" or "scheme:", not file) and rel_target_ok (canonical segments,
   query, fragment); hence so does every record in one of C02's three hierarchical canonical forms whose path
   is not empty and that carries no "/." marker.  (C08_RelAuth.v proves the law for these records directly; this
   file shows that the domain rel_canon of C08_relative_canon is not smaller on them.) *)
From RU Require Import Base.Prelude Base.Utf8 Base.Utf8Facts Model.AsciiSet Gen.Tables Model.PercentEncoding
  Model.HostT Model.UrlRecord Model.Parser Model.Setters Model.WF Model.MakeRelative Model.KnownC08
  Proofs.ListN Proofs.C14_Enc Proofs.C02_Enc Proofs.C02_Parts Proofs.C02_Opaque Proofs.C02_Path Proofs.C02_PathL1
  Proofs.C02_Reach Proofs.C02_AuthParts Proofs.C02_Auth Proofs.C02_AuthWf Proofs.C02_PathSp Proofs.C02_AuthSp
  Proofs.C02_AuthMain Proofs.C02_FileParse
  Proofs.C08_Input Proofs.C08_Simple Proofs.C08_Contain Proofs.C08_RelEval Proofs.C08_RelPath Proofs.C08_RelJoin
  Proofs.C08_RelMr Proofs.C08_RelLaw Proofs.C08_RelCanon Proofs.C08_RelNoAuth Proofs.C08_Absolute Proofs.C08_AbsNonfile
  Proofs.C08_RelAuth.

Lemma hi_eqb_refl h : hi_eqb h h = true.
Proof. destruct h; cbn [hi_eqb]; try reflexivity; [apply N.eqb_refl | apply list_eqb_refl]. Qed.

Lemma url_eqb_refl u : url_eqb u u = true.
Proof. unfold url_eqb. rewrite list_eqb_refl, !N.eqb_refl, hi_eqb_refl, !opt_eqb_refl. reflexivity. Qed.

(* an explicit record passes the recognisers *)
Section Recog.
Variables (pre : list N) (se ue hs he : N) (hi : host_internal) (po : option N).
Variables (segs : list (list N)) (last : list N) (q f : option (list N)).
Notation u := (hier_url pre se ue hs he hi po segs last q f).
Hypothesis Hs : forallb no_slash segs = true.
Hypothesis Hl : no_slash last = true.

Lemma hier_parts_hier : hier_parts u = Some (segs, last, q, f).
Proof.
  unfold hier_parts. rewrite hier_path, hier_query, hier_fragment. unfold path_text.
  unfold split_on. rewrite split_on_aux_segs by assumption. rewrite removelast_last, last_last. reflexivity.
Qed.

Lemma hier_u_pre : u_pre u = pre.
Proof. unfold u_pre. change (path_start u) with (nlen pre). apply hier_pre_of. Qed.

Lemma hier_canon_hier : hier_canon u = true.
Proof.
  unfold hier_canon. rewrite hier_parts_hier, hier_u_pre.
  change (scheme_end u) with se. change (username_end u) with ue. change (host_start u) with hs.
  change (host_end u) with he. change (hosti u) with hi. change (port u) with po.
  rewrite url_eqb_refl, Hs, Hl. reflexivity.
Qed.

Lemma rel_base_ok_hier : front_pre se pre -> st_is_file (scheme_type_of (nfirstn se pre)) = false -> rel_base_ok u = true.
Proof.
  intros Hf Hnf. unfold rel_base_ok, b_st. rewrite hier_u_pre, (hier_b_scheme _ _ _ _ _ _ _ _ _ _ _ Hf), Hnf.
  change (scheme_end u) with se.
  destruct Hf as [(A & R & -> & <-)|(A & -> & <-)].
  - rewrite nskipn_app_len. replace (nlen A <=? nlen (A ++ [58; 47; 47] ++ R)) with true by (rewrite nlen_app; lia).
    reflexivity.
  - rewrite nskipn_app_len. replace (nlen A <=? nlen (A ++ [58])) with true by (rewrite nlen_app; lia).
    rewrite orb_true_r. reflexivity.
Qed.

Lemma rel_target_ok_hier st : forallb (seg_ok st) segs = true -> seg_ok st last = true ->
  opt_clean (query_set st) q -> opt_clean T_FRAGMENT f -> nlen (ser u) <= U32_MAX_P ->
  rel_target_ok st u = true.
Proof.
  intros H1 H2 H3 H4 H5. unfold rel_target_ok. rewrite hier_parts_hier, H1, H2.
  assert (forall S o, opt_clean S o -> opt_cleanb S o = true) as G by (intros S [x|] H; [exact H | reflexivity]).
  rewrite (G _ _ H3), (G _ _ H4). replace (nlen (ser u) <=? U32_MAX_P) with true by lia. reflexivity.
Qed.

Lemma main_eqb_hier segs' last' q' f' : main_eqb u (hier_url pre se ue hs he hi po segs' last' q' f') = true.
Proof. unfold main_eqb. cbn [scheme_end username_end host_start host_end hosti port path_start hier_url]. rewrite !N.eqb_refl, hi_eqb_refl, opt_eqb_refl. reflexivity. Qed.

End Recog.

(* C02's canonical records with authority and a non-empty path *)
Section RecogAuth.
Variables (hp hpo : list N -> result host) (hd : host -> list N).

Theorem auth_recognised st sch ui h pt segs last q f : st_is_file st = false ->
  auth_ok hp hpo hd st sch ui h pt (Some (segs, last)) q f ->
  let u := auth_url hd sch ui h pt (Some (segs, last)) q f in
  hier_canon u = true /\ rel_base_ok u = true /\ b_st u = st
  /\ ((st = STSpecialNotFile -> pth_ok_sp (Some (segs, last))) -> nlen (ser u) <= U32_MAX_P -> rel_target_ok st u = true).
Proof.
  intros Hnf K u. unfold u. rewrite auth_is_hier.
  destruct K as [k1 k2 k3 k4 k5 k6 k7 k8 k9 k10 k11 k12]. cbn [pth_ok] in k7. destruct k7 as [Hs Hl].
  pose proof (good_segs_no_slash segs Hs) as Hsn. destruct (good_seg_parts last Hl) as (_ & Hln & _).
  pose proof (front_sch hd sch ui h pt []) as Es. rewrite app_nil_r in Es.
  assert (front_pre (nlen sch) (auth_front hd sch ui h pt)) as Hf.
  { left. exists sch, (ui_text ui ++ hd h ++ port_text pt). split; [unfold auth_front; rewrite <- app_assoc; reflexivity | reflexivity]. }
  split; [apply hier_canon_hier; assumption|]. split; [apply rel_base_ok_hier; rewrite ?Es, ?k2; assumption|].
  split; [unfold b_st; rewrite (hier_b_scheme _ _ _ _ _ _ _ _ _ _ _ Hf), Es; exact k2|].
  intros Kp Hlen. apply rel_target_ok_hier; try assumption.
  - destruct st; [discriminate Hnf | | apply segs_ok_nonspecial; exact Hs].
    destruct (Kp eq_refl) as [Hsp _]. apply segs_ok_special. exact Hsp.
  - destruct st; [discriminate Hnf | | apply seg_ok_nonspecial; exact Hl].
    destruct (Kp eq_refl) as [_ Hlp]. apply seg_ok_special; [reflexivity | exact Hlp].
Qed.

(* a pair of canonical records with authority inside MR_ok is inside rel_canon, the computable domain of
   C08_relative_canon (the length premise: rel_target_ok bounds the whole target, C02's form only the offsets) *)
Hypothesis HRT : HostRT hp hpo hd.

Theorem auth_pair_rel_canon stb stt sch ui h pt bp bq bf sch' ui' h' pt' tp tq tf :
  st_is_file stb = false ->
  auth_ok hp hpo hd stb sch ui h pt bp bq bf ->
  auth_ok hp hpo hd stt sch' ui' h' pt' tp tq tf -> (stt = STSpecialNotFile -> pth_ok_sp tp) ->
  mr_ok (auth_url hd sch ui h pt bp bq bf) (auth_url hd sch' ui' h' pt' tp tq tf) = true ->
  nlen (ser (auth_url hd sch' ui' h' pt' tp tq tf)) <= U32_MAX_P ->
  rel_canon (auth_url hd sch ui h pt bp bq bf) (auth_url hd sch' ui' h' pt' tp tq tf) = true.
Proof.
  intros Hnf Kb Kt Ktp Hok Hlen.
  destruct (auth_pair_front true hp hpo hd HRT _ _ _ _ _ _ _ _ _ _ _ _ _ _ _ _ Hnf Kb Kt Ktp Hok)
    as (bsegs & blast & tsegs & tlast & -> & -> & -> & Et & K').
  rewrite Et in *. clear Et Kt.
  destruct (auth_recognised stb sch ui h pt bsegs blast bq bf Hnf Kb) as (Hcb & Hbb & Hbst & _).
  destruct (auth_recognised stb sch ui h pt tsegs tlast tq tf Hnf K') as (Hct & _ & _ & Htt).
  unfold rel_canon. rewrite Hcb, Hct, Hbb, Hbst, (Htt Ktp Hlen), Hok. rewrite !auth_is_hier, main_eqb_hier. reflexivity.
Qed.

End RecogAuth.

(* the authority-less form without the "/." marker *)
Theorem noauth_recognised sch segs last q f : noauth_ok sch segs last q f -> marker_of (path_text segs last) = [] ->
  let u := noauth_url sch (path_text segs last) q f in
  hier_canon u = true /\ rel_base_ok u = true /\ b_st u = STNotSpecial
  /\ (nlen (ser u) <= U32_MAX_P -> rel_target_ok STNotSpecial u = true).
Proof.
  intros K M u. unfold u. rewrite noauth_is_hier, M, app_nil_r.
  destruct K as [k1 k2 Hs Hl k5 k6 k7 k8 k9].
  pose proof (good_segs_no_slash segs Hs) as Hsn. destruct (good_seg_parts last Hl) as (_ & Hln & _).
  assert (nfirstn (nlen sch) (sch ++ [58]) = sch) as Es by apply nfirstn_app_len.
  assert (front_pre (nlen sch) (sch ++ [58])) as Hf by (right; exists sch; split; reflexivity).
  split; [apply hier_canon_hier; assumption|]. split; [apply rel_base_ok_hier; rewrite ?Es, ?k2; trivial|].
  split; [unfold b_st; rewrite (hier_b_scheme _ _ _ _ _ _ _ _ _ _ _ Hf), Es; exact k2|].
  intros Hlen. apply rel_target_ok_hier; try assumption; [apply segs_ok_nonspecial; exact Hs | apply seg_ok_nonspecial; exact Hl].
Qed.

(* ... and so is a pair of authority-less canonical records *)
Theorem noauth_pair_rel_canon schb bsegs blast bq bf scht tsegs tlast tq tf :
  noauth_ok schb bsegs blast bq bf -> noauth_ok scht tsegs tlast tq tf ->
  mr_ok (noauth_url schb (path_text bsegs blast) bq bf) (noauth_url scht (path_text tsegs tlast) tq tf) = true ->
  nlen (ser (noauth_url scht (path_text tsegs tlast) tq tf)) <= U32_MAX_P ->
  rel_canon (noauth_url schb (path_text bsegs blast) bq bf) (noauth_url scht (path_text tsegs tlast) tq tf) = true.
Proof.
  intros Kb Kt Hok Hlen.
  destruct (noauth_pair_front _ _ _ _ _ _ _ _ _ _ Kb Kt Hok) as (Mb & Mt & ->).
  destruct (noauth_recognised schb bsegs blast bq bf Kb Mb) as (Hcb & Hbb & Hbst & _).
  destruct (noauth_recognised schb tsegs tlast tq tf Kt Mt) as (Hct & _ & _ & Htt).
  unfold rel_canon. rewrite Hcb, Hct, Hbb, Hbst, (Htt Hlen), Hok. rewrite !noauth_is_hier, Mb, Mt, !app_nil_r, main_eqb_hier. reflexivity.
Qed.

(* every pair of C02's canonical forms inside MR_ok is inside rel_canon *)
Section RecogForms.
Variables (hp hpo : list N -> result host) (hd : host -> list N).
Hypothesis HRT : HostRT hp hpo hd.

Theorem forms_rel_canon b t : nonfile_form hp hpo hd b -> nonfile_form hp hpo hd t ->
  mr_ok b t = true -> nlen (ser t) <= U32_MAX_P -> rel_canon b t = true.
Proof.
  intros Fb Ft Hok. generalize Hok.
  apply (forms_pair_cases hp hpo hd (fun b t => mr_ok b t = true -> nlen (ser t) <= U32_MAX_P -> rel_canon b t = true)
           b t Fb Ft Hok).
  - intros schb bsegs blast bq bf scht tsegs tlast tq tf. apply noauth_pair_rel_canon.
  - intros stb stt sch ui h pt bp bq bf sch' ui' h' pt' tp tq tf. apply (auth_pair_rel_canon hp hpo hd HRT).
Qed.

Theorem parsed_rel_canon dbg bi ti b t : host_above hp hpo hd -> usv_list bi -> usv_list ti ->
  nonfile_input bi = true -> nonfile_input ti = true ->
  parse_url dbg hp hpo hd None None bi = POk b -> parse_url dbg hp hpo hd None None ti = POk t ->
  mr_ok b t = true -> nlen (ser t) <= U32_MAX_P -> rel_canon b t = true.
Proof.
  intros HAb Hub Hut Cb Ct Pb Pt Hok Hlen.
  exact (forms_rel_canon b t (nonfile_parse_form dbg hp hpo hd HRT bi b HAb Hub Cb Pb)
           (nonfile_parse_form dbg hp hpo hd HRT ti t HAb Hut Ct Pt) Hok Hlen).
Qed.

End RecogForms.
