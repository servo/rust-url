(* Proofs/C03_ReachHist.v - histories: every record reached by parse / join (any scheme) and
   by the mutators whose invariant preservation C06 proves (set_fragment, set_query, set_port,
   set_password, set_username, set_scheme, set_host(None) and set_ip_host outside their known classes,
   set_path and path_segments_mut sessions on records with an authority) satisfies
   wfh = wf_b /\ host_text_ok - the premise of every C03 accessor / Position theorem and of C06. *)
From RU Require Import Base.Prelude Model.HostT Model.UrlRecord Model.Parser Model.Setters Model.WF Proofs.C06_HostNone
  Proofs.C06_Host Proofs.C06_Segments Proofs.C06_Path Proofs.C06_Main Proofs.C04_ParseTotal Proofs.C03_ReachParts
  Proofs.C03_ReachFile.

Section Hist.
Variable dbg : bool.
Variable hp hpo : list N -> result host.
Variable hd : host -> list N.

Inductive reach03 : url -> Prop :=
| R3_parse ovr input u : parse_url dbg hp hpo hd ovr None input = POk u -> reach03 u
| R3_join ovr b input u :
    reach03 b -> base_ok b = true -> parse_url dbg hp hpo hd ovr (Some b) input = POk u -> reach03 u
| R3_fragment u f u' : reach03 u -> set_fragment dbg u f = Some u' -> reach03 u'
| R3_query u q u' : reach03 u -> str_arg_ok q -> set_query dbg u q = Some u' -> reach03 u'
| R3_port u p u' st : reach03 u -> port_arg_ok p -> set_port dbg u p = Some (u', st) -> reach03 u'
| R3_password u pw u' st : reach03 u -> set_password dbg u pw = Some (u', st) -> reach03 u'
| R3_username u un u' st : reach03 u -> set_username dbg u un = Some (u', st) -> reach03 u'
| R3_scheme u s u' st : reach03 u -> set_scheme dbg u s = Some (u', st) -> reach03 u'
| R3_host_none u u' st :
    reach03 u -> path_empty_at_end u = false -> path_starts_with_2slash u = false ->
    set_host dbg hp hpo hd u None = Some (u', st) -> reach03 u'
| R3_ip_host u h u' st :
    reach03 u -> host_disp_ok hd h ->
    (has_authority_b u = true -> hi_of_host h = HI_None -> port u = None) ->
    (has_authority_b u = false -> path_start u = scheme_end u + 1) ->
    set_ip_host dbg hd u h = Some (u', st) -> reach03 u'
| R3_path u p u' :
    reach03 u -> has_authority_b u = true -> usv_list p -> auth_end_ok u ->
    set_path dbg u p = Some u' -> reach03 u'
| R3_segments u ops u' :
    reach03 u -> has_authority_b u = true -> Forall psm_op_usv ops ->
    path_segments_session dbg u ops = Some (u', SOk) -> reach03 u'.

Theorem reach03_wfh : HostWf hp hpo hd -> forall u, reach03 u -> wfh u.
Proof.
  intros HW u R. induction R as
    [ovr input u Hp | ovr b input u Rb IHb Hb Hp | u f u' R IH H | u q u' R IH Hq H | u p u' st R IH Hp H
    | u pw u' st R IH H | u un u' st R IH H | u s u' st R IH H | u u' st R IH H1 H2 H | u h u' st R IH H1 H2 H3 H
    | u p u' R IH Ha Hp He H | u ops u' R IH Ha Ho H].
  - exact (parse_url_wf_all dbg hp hpo hd ovr HW None input u I Hp).
  - destruct IHb as [Wb Tb]. exact (parse_url_wf_all dbg hp hpo hd ovr HW (Some b) input u (conj Hb Tb) Hp).
  - destruct (wf_all dbg hp hpo hd u IH) as (A & _). exact (A _ _ H).
  - destruct (wf_all dbg hp hpo hd u IH) as (_ & A & _). exact (A _ _ Hq H).
  - destruct (wf_all dbg hp hpo hd u IH) as (_ & _ & A & _). exact (A _ _ _ Hp H).
  - destruct (wf_all dbg hp hpo hd u IH) as (_ & _ & _ & A & _). exact (A _ _ _ H).
  - destruct (wf_all dbg hp hpo hd u IH) as (_ & _ & _ & _ & A & _). exact (A _ _ _ H).
  - destruct (wf_all dbg hp hpo hd u IH) as (_ & _ & _ & _ & _ & A & _). exact (A _ _ _ H).
  - destruct (wf_all dbg hp hpo hd u IH) as (_ & _ & _ & _ & _ & _ & A & _). exact (A _ _ H1 H2 H).
  - destruct (wf_all dbg hp hpo hd u IH) as (_ & _ & _ & _ & _ & _ & _ & A). exact (A _ _ _ H1 H2 H3 H).
  - destruct (path_all dbg u IH Ha) as (A & _). exact (proj1 (A _ _ Hp He H)).
  - destruct (path_all dbg u IH Ha) as (_ & A). exact (proj1 (A _ _ Ho H)).
Qed.
End Hist.
