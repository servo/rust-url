(* Proofs/C07_EqOpaqueClass.v - the second clause of C07_statement ("parsing yields related records")
   for one whole class of inputs: the opaque-path class of the C01 equivalence (a non-special scheme
   followed by something that does not start with '/': "mailto:x", "data:...", "a:b c ?q#f").
   Both parsers yield the canonical opaque records of Proofs/C01_EqOpaque.v, and these are related by
   corr (from C01's `related` through the bridge of Proofs/C07_EqRel.v). *)
From RU Require Import Base.Prelude Base.Utf8 Base.Utf8Facts Model.AsciiSet Gen.Tables Model.PercentEncoding
  Model.HostT Model.UrlRecord Model.Parser Model.Setters Model.WF Model.KnownC01 Model.KnownC07 Spec.Whatwg
  Proofs.ListN Proofs.C02_Enc Proofs.C02_Parts Proofs.C02_Opaque Proofs.C03_WF Proofs.C06_Steps Proofs.C06_FragQuery
  Proofs.C01_EqRun Proofs.C01_EqApi Proofs.C01_EqOpaque
  Proofs.C07_Defs Proofs.C07_Corr Proofs.C07_EqFive Proofs.C01_EqRef Proofs.C07_EqRel.

Section OpaqueCorr.
Variable dbg : bool.
Variable shs : spec_host -> list N.

Theorem corr_opaque sch P q f : opaque_ok sch P q f ->
  corr dbg shs (opaque_url sch P q f) (spec_opaque_url sch P q f).
Proof.
  intros K. pose proof (opaque_url_wf _ _ _ _ K) as W. pose proof (opaque_no_authority _ _ _ _ K) as Hna.
  apply related_corr_of; cbn [spec_opaque_url su_host su_port]; try exact I.
  - exact (related_opaque dbg shs sch P q f K).
  - intros X. discriminate X.
  - intros un Hun. rewrite (noauth_username dbg _ un W); [reflexivity | pose proof (nf_ue (wf_noauth_facts _ W Hna)); lia | exact Hun].
  - intros X. discriminate X.
Qed.

End OpaqueCorr.

Section OpaqueClass.
Variable dbg : bool.
Variable hp hpo : list N -> result host.
Variable hd : host -> list N.
Variable shp : bool -> list N -> option spec_host.
Variable shs : spec_host -> list N.

(* parsing an input of the class yields related records (or the model reports Overflow: a
   serialization longer than u32::MAX) *)
Theorem opaque_class_corr input sch rem : usv_list input ->
  parse_scheme CUrlParser (input_new_trim_c0 input) = Some (sch, rem) ->
  scheme_type_of sch = STNotSpecial -> inp_split_prefix_char 47 rem = None ->
  exists su, spec_basic_url_parse shp input None = BDone su
    /\ (parse_url dbg hp hpo hd None None input = PErr Overflow
        \/ exists u, parse_url dbg hp hpo hd None None input = POk u /\ corr dbg shs u su).
Proof.
  intros Hu Hs Hns H47. eexists. split; [exact (spec_opaque shp input sch rem Hs Hns H47)|].
  destruct (model_opaque dbg hp hpo hd None shp input sch rem Hu Hs Hns H47) as [E|[E K]]; [left; exact E|].
  right. eexists. split; [exact E|]. apply corr_opaque. exact K.
Qed.

End OpaqueClass.
