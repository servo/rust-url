(* Proofs/Idna_C10_Puny.v - two facts about Model/Punycode.v used by the C10 output theorem:
   (1) everything the encoder writes is an ASCII character of its input, or a letter a-z, a digit or '-';
   (2) when the internal-caller decoder accepts a text, each of its characters is '-', a Punycode digit
       (a-z A-Z 0-9), or a base character whose yielded form (lower-cased for the u8 instantiation) occurs in the
       decoded text. *)
From RU Require Import Base.Prelude Base.Utf8 Base.U32_c13 Gen.Tables Model.Punycode Model.Uts46
  Proofs.C13_Ascii Proofs.C13_Dec Proofs.Idna_Sim Proofs.Idna_Api Proofs.Idna_Known Proofs.Idna_Hyp Proofs.Idna_Redisc
  Proofs.Idna_C10_Deny.

Lemma value_to_digit_ldh v c : value_to_digit v = Ok c -> ldh c = true.
Proof.
  intros H. apply value_to_digit_ok in H. destruct H as [Hv [_ H]]. unfold value_to_digit_spec in H.
  unfold ldh, is_lower, is_digit.
  destruct (v <? 26) eqn:E1; [inversion H; lia|].
  destruct (v <? 36) eqn:E2; [inversion H; lia|discriminate].
Qed.

Definition all_ldh (l : list N) : Prop := Forall (fun c => ldh c = true) l.

Lemma enc_vli_ldh fuel : forall q k bias ds, enc_vli fuel q k bias = Ok ds -> all_ldh ds.
Proof.
  induction fuel as [|f IH]; intros q k bias ds H; cbn [enc_vli] in H; [discriminate|].
  destruct (q <? threshold k bias).
  - rbind_inv H d Hd. inversion H. subst ds. constructor; [exact (value_to_digit_ldh _ _ Hd)|constructor].
  - rbind_inv H d Hd. rbind_inv H r Hr. inversion H. subst ds.
    constructor; [exact (value_to_digit_ldh _ _ Hd)|exact (IH _ _ _ _ Hr)].
Qed.

Lemma enc_inner_ldh cfg ext input : forall cp bl delta bias processed d b p o,
  enc_inner cfg ext input cp bl delta bias processed = Ok (d, b, p, o) -> all_ldh o.
Proof.
  induction input as [|c r IH]; intros cp bl delta bias processed d b p o H; cbn [enc_inner] in H.
  - inversion H. constructor.
  - rbind_inv H delta' Hdelta.
    destruct (c =? cp).
    + rbind_inv H digits Hdig. rbind_inv H bias' Hbias. rbind_inv H st Hst.
      destruct st as [[[d1 b1] p1] o1]. inversion H. subst.
      apply Forall_app. split; [exact (enc_vli_ldh _ _ _ _ _ Hdig)|exact (IH _ _ _ _ _ _ _ _ _ Hst)].
    + exact (IH _ _ _ _ _ _ _ _ _ H).
Qed.

Lemma enc_outer_ldh fuel cfg ext input il bl : forall cp delta bias processed o,
  enc_outer fuel cfg ext input il bl cp delta bias processed = Ok o -> all_ldh o.
Proof.
  induction fuel as [|f IH]; intros cp delta bias processed o H; cbn [enc_outer] in H.
  - destruct (processed <? il); [discriminate|]. inversion H. constructor.
  - destruct (processed <? il); [|inversion H; constructor].
    destruct (min_ge cp input) as [m|]; [|discriminate].
    rbind_inv H product Hp. rbind_inv H delta' Hd. rbind_inv H st Hst.
    destruct st as [[[d1 b1] p1] o1]. rbind_inv H delta'' Hd2. rbind_inv H o2 Ho2. inversion H. subst o.
    apply Forall_app. split; [exact (enc_inner_ldh _ _ _ _ _ _ _ _ _ _ _ _ Hst)|exact (IH _ _ _ _ _ Ho2)].
Qed.

Lemma enc_basic_in input : forall il bl a b o, enc_basic input il bl = Some (a, b, o) ->
  Forall (fun c => In c input /\ c < 128) o.
Proof.
  induction input as [|c r IH]; intros il bl a b o H; cbn [enc_basic] in H.
  - inversion H. constructor.
  - destruct (checked_add il 1) as [il'|]; [|discriminate].
    destruct (c <? 128) eqn:E.
    + destruct (enc_basic r il' (bl + 1)) as [[[a1 b1] o1]|] eqn:E2; [|discriminate].
      inversion H. subst. constructor; [split; [left; reflexivity|lia]|].
      eapply Forall_impl; [|exact (IH _ _ _ _ _ E2)]. cbv beta. intros x [Hx Hl]. split; [right; exact Hx|exact Hl].
    + eapply Forall_impl; [|exact (IH _ _ _ _ _ H)]. cbv beta. intros x [Hx Hl]. split; [right; exact Hx|exact Hl].
Qed.

Theorem encode_into_chars cfg ext s p : encode_into cfg ext s = Ok p ->
  Forall (fun c => (In c s /\ c < 128) \/ ldh c = true) p.
Proof.
  unfold encode_into. intros H.
  destruct (enc_basic s 0 0) as [[[il bl] basic]|] eqn:E; [|discriminate].
  rbind_inv H u Hu. rbind_inv H o Ho. inversion H. subst p.
  apply Forall_app. split.
  { eapply Forall_impl; [|exact (enc_basic_in _ _ _ _ _ _ E)]. cbv beta. intros x Hx. left; exact Hx. }
  apply Forall_app. split.
  { destruct (0 <? bl); [constructor; [right; reflexivity|constructor]|constructor]. }
  eapply Forall_impl; [|exact (enc_outer_ldh _ _ _ _ _ _ _ _ _ _ _ Ho)]. cbv beta. intros x Hx. right; exact Hx.
Qed.

(* what write_punycode_label writes for a label whose ASCII characters are not denied *)
Lemma encode_internal_clean cfg deny label o : LdhFree deny -> Forall (okc deny) label ->
  encode_internal cfg label = Ok o -> Forall (clean deny) o.
Proof.
  intros HL Hl H. unfold encode_internal in H. apply encode_into_chars in H.
  eapply Forall_impl; [|exact H]. cbv beta. intros c [[Hin Hc]|Hc].
  - rewrite Forall_forall in Hl. apply okc_clean; [exact Hc|exact (Hl c Hin)].
  - apply ldh_clean; assumption.
Qed.

Lemma rposition_split l : forall p, rposition_delim l = Some p ->
  l = firstn p l ++ DELIMITER :: skipn (Datatypes.S p) l.
Proof.
  induction l as [|x r IH]; intros p H; [discriminate|]. cbn [rposition_delim] in H.
  destruct (rposition_delim r) as [i|].
  - inversion H. subst p. cbn [firstn skipn app]. f_equal. exact (IH i eq_refl).
  - destruct (x =? DELIMITER) eqn:E; [|discriminate]. inversion H. subst p. apply N.eqb_eq in E. subst x.
    cbn [firstn skipn app]. reflexivity.
Qed.

Lemma split_input_cover input base rest : split_input input = (base, rest) ->
  forall c, In c input -> In c base \/ c = DELIMITER \/ In c rest.
Proof.
  unfold split_input. destruct (rposition_delim input) as [p|] eqn:E.
  - intros H c Hc. inversion H as [[Hb Hr]]. clear H. clear Hb Hr.
    destruct p as [|p].
    + change (0 <? 0)%nat with false. cbv iota. right; right; exact Hc.
    + change (0 <? Datatypes.S p)%nat with true. cbv iota.
      rewrite (rposition_split input _ E) in Hc. apply in_app_or in Hc.
      destruct Hc as [Hc|[Hc|Hc]]; [left; exact Hc|right; left; symmetry; exact Hc|right; right; exact Hc].
  - intros H c Hc. inversion H. subst rest. right; right; exact Hc.
Qed.

Lemma dec_loop_digits cfg it input : forall mid prev w k i length cp bias ins out,
  dec_loop cfg it input mid prev w k i length cp bias ins = Ok out ->
  Forall (fun c => inst_digit it c <> None) input.
Proof.
  induction input as [|byte rest IH]; intros mid prev w k i length cp bias ins out H; [constructor|].
  cbn [dec_loop] in H.
  destruct (inst_digit it byte) as [digit|] eqn:Ed; [|discriminate].
  constructor; [rewrite Ed; discriminate|].
  destruct (checked_mul digit w) as [product|]; [|discriminate].
  destruct (checked_add i product) as [i1|]; [|discriminate].
  destruct (digit <? threshold k bias).
  - destruct (unchecked_add cfg 233 length 1) as [len1| |s]; try discriminate.
    destruct (adapt (i1 - prev) len1 (prev =? 0)) as [bias1| |s]; try discriminate.
    destruct (checked_add cp (i1 / len1)) as [cp1|]; [|discriminate].
    destruct (is_usvb cp1); [|discriminate].
    exact (IH _ _ _ _ _ _ _ _ _ _ H).
  - destruct (checked_mul w (BASE - threshold k bias)) as [w1|]; [|discriminate].
    exact (IH _ _ _ _ _ _ _ _ _ _ H).
Qed.

Lemma rcons_ok {X : Type} (c : X) r out : rcons c r = Ok out -> exists o, r = Ok o /\ out = c :: o.
Proof. destruct r as [o| |s]; cbn [rcons]; intros H; try discriminate. inversion H. exists o. split; reflexivity. Qed.

Lemma collect_base_in it ins : forall base pos out, decode_collect it ins base pos = Ok out ->
  forall b, In b base -> In (inst_base_char it b) out.
Proof.
  induction ins as [|[p c] ins' IHi]; intros base; induction base as [|b0 base' IHb]; intros pos out H b Hb;
    try (destruct Hb; fail); rewrite collect_eq in H.
  - apply rcons_ok in H. destruct H as (o & Ho & ->). destruct Hb as [->|Hb]; [left; reflexivity|].
    right. exact (IHb _ _ Ho b Hb).
  - destruct (p =? pos).
    + apply rcons_ok in H. destruct H as (o & Ho & ->). right. exact (IHi _ _ _ Ho b Hb).
    + apply rcons_ok in H. destruct H as (o & Ho & ->). destruct Hb as [->|Hb]; [left; reflexivity|].
      right. exact (IHb _ _ Ho b Hb).
Qed.

(* states nothing (conclusion True); not used *)
Lemma collect_nil_base it ins : forall pos out, decode_collect it ins [] pos = Ok out -> True.
Proof. intros; exact I. Qed.

Theorem decode_with_chars cfg it p l : inst_external it = false -> decode_with cfg it p = Ok l ->
  Forall (fun c => In (inst_base_char it c) l \/ c = DELIMITER \/ inst_digit it c <> None) p.
Proof.
  intros Hi H. unfold decode_with, decoder_decode in H.
  destruct (split_input p) as [base rest] eqn:Es. rewrite Hi in H. cbn [andb] in H.
  destruct (dec_loop cfg it rest false 0 1 BASE 0 (u32_wrap (N.of_nat (length base))) INITIAL_N INITIAL_BIAS [])
    as [ins| |s] eqn:Ed; try discriminate.
  apply dec_loop_digits in Ed. rewrite Forall_forall in Ed.
  apply Forall_forall. intros c Hc.
  destruct (split_input_cover p base rest Es c Hc) as [Hb|[Hd|Hr]].
  - left. exact (collect_base_in it _ _ _ _ H c Hb).
  - right; left; exact Hd.
  - right; right. exact (Ed c Hr).
Qed.

Lemma digit_u8_lower c : digit_u8 c <> None -> ldh (to_lower c) = true.
Proof.
  rewrite digit_u8_table. unfold digit_u8_spec, ldh, to_lower, is_upper, is_lower, is_digit.
  destruct ((48 <=? c) && (c <=? 57)) eqn:E1.
  { intros _. replace ((65 <=? c) && (c <=? 90)) with false by lia. lia. }
  destruct ((65 <=? c) && (c <=? 90)) eqn:E2.
  { intros _. lia. }
  destruct ((97 <=? c) && (c <=? 122)) eqn:E3.
  { intros _. lia. }
  intros H. contradiction H. reflexivity.
Qed.
