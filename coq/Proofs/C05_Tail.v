(* Proofs/C05_Tail.v - where the query and the fragment of a parse result come from.
   Every arm of the parser ends in parse_query_and_fragment, except the two references that keep text
   of the base: the empty reference (the base without its fragment) and the fragment-only reference.
   A statement about (ser u, query_start u, fragment_start u) therefore holds of every parse result as
   soon as it holds in these three cases (tail_origin_elim); the fragment and query clauses are
   obtained that way. *)
From RU Require Import Base.Prelude Base.Utf8 Model.AsciiSet Gen.Tables Model.PercentEncoding
  Model.HostT Model.UrlRecord Model.Parser Proofs.ListN Proofs.C06_FragQuery Proofs.C05_Enc Proofs.C05_Parser.

(* the two loops that write a query or a fragment append pieces of encoder output *)
Section Loops.
Variable Q : list N -> Prop.
Variable set : aset.
Hypothesis Q_nil : Q [].
Hypothesis Q_app : forall a b, Q a -> Q b -> Q (a ++ b).
Hypothesis Q_piece : forall xs, Q (pe_display set xs).

Lemma tnl_loop_adds l : forall ser pr, exists t, tnl_loop set ser pr l = ser ++ t /\ Q t.
Proof.
  induction l as [|c r IH]; intros ser pr; cbn [tnl_loop].
  - destruct pr; [exists []; rewrite app_nil_r; split; [reflexivity | exact Q_nil]|].
    unfold flush_part. eexists; split; [reflexivity | apply Q_piece].
  - destruct (is_tnl c); [|apply IH].
    destruct (IH (flush_part set utf8_encode ser pr) []) as [t [Ht Hok]]. rewrite Ht. unfold flush_part.
    rewrite <- app_assoc. eexists; split; [reflexivity|]. apply Q_app; [apply Q_piece | exact Hok].
Qed.

Lemma query_loop_adds enc iup l : forall ser pr,
  exists t, fst (parse_query_loop set enc iup ser pr l) = ser ++ t /\ Q t.
Proof.
  induction l as [|c r IH]; intros ser pr; cbn [parse_query_loop].
  - cbn [fst]. destruct pr; [exists []; rewrite app_nil_r; split; [reflexivity | exact Q_nil]|].
    unfold flush_part. eexists; split; [reflexivity | apply Q_piece].
  - destruct (is_tnl c).
    { destruct (IH (flush_part set enc ser pr) []) as [t [Ht Hok]]. rewrite Ht. unfold flush_part.
      rewrite <- app_assoc. eexists; split; [reflexivity|]. apply Q_app; [apply Q_piece | exact Hok]. }
    destruct ((c =? 35) && iup); [|apply IH].
    cbn [fst]. unfold flush_part. eexists; split; [reflexivity | apply Q_piece].
Qed.

End Loops.

Definition tail_parsed (u : url) : Prop :=
  exists ovr ctx st se sr l,
    parse_query_and_fragment ovr ctx st se sr l = POk (ser u, query_start u, fragment_start u).

Definition tail_kept (b u : url) : Prop :=
  (exists l, fragment_only b l = POk u)
  \/ (ser u = b_before_fragment b /\ query_start u = query_start b /\ fragment_start u = None).

Definition tail_origin (base : option url) (u : url) : Prop :=
  tail_parsed u \/ exists b, base = Some b /\ tail_kept b u.

Lemma tail_origin_elim (T : list N -> option N -> option N -> Prop) base u :
  (forall ovr ctx st se sr l s qs fs, parse_query_and_fragment ovr ctx st se sr l = POk (s, qs, fs) -> T s qs fs) ->
  (forall b l u', base = Some b -> fragment_only b l = POk u' -> T (ser u') (query_start u') (fragment_start u')) ->
  (forall b, base = Some b -> T (b_before_fragment b) (query_start b) None) ->
  tail_origin base u -> T (ser u) (query_start u) (fragment_start u).
Proof.
  intros H1 H2 H3 [(ovr & ctx & st & se & sr & l & H)|(b & Eb & [[l H]|(E1 & E2 & E3)])].
  - exact (H1 _ _ _ _ _ _ _ _ _ H).
  - exact (H2 b l u Eb H).
  - rewrite E1, E2, E3. exact (H3 b Eb).
Qed.

Lemma pqf_tail ovr ctx st se sr l s qs fs (f : list N -> option N -> option N -> url) :
  (forall s qs fs, ser (f s qs fs) = s /\ query_start (f s qs fs) = qs /\ fragment_start (f s qs fs) = fs) ->
  parse_query_and_fragment ovr ctx st se sr l = POk (s, qs, fs) -> tail_parsed (f s qs fs).
Proof.
  intros Hf H. destruct (Hf s qs fs) as (E1 & E2 & E3). exists ovr, ctx, st, se, sr, l. rewrite E1, E2, E3. exact H.
Qed.

Lemma wqaf_tail ovr ctx st se ue hs he hi port ps sr rem u :
  with_query_and_fragment ovr ctx st se ue hs he hi port ps sr rem = POk u -> tail_parsed u.
Proof.
  intros H.
  destruct (with_query_and_fragment_steps ovr _ _ _ _ _ _ _ _ _ _ _ _ H) as (s1 & ps1 & s2 & qs & fs & _ & Hq & ->).
  exact (pqf_tail _ _ _ _ _ _ _ _ _ (fun s q f => mkUrl s se ue hs he hi port ps1 q f) (fun _ _ _ => conj eq_refl (conj eq_refl eq_refl)) Hq).
Qed.

Section WithHosts.
Variable dbg : bool.
Variable host_parse host_parse_opaque : list N -> result host.
Variable host_display : host -> list N.
Variable ovr : option (list N -> list N).

Lemma after_double_slash_tail ctx st se sr l u :
  after_double_slash dbg host_parse host_parse_opaque host_display ovr ctx st se sr l = POk u -> tail_parsed u.
Proof.
  intros H.
  destruct (after_double_slash_steps dbg host_parse host_parse_opaque host_display ovr _ _ _ _ _ _ H)
    as (ser1 & ue & rm & ser2 & he & hi & pt & rm2 & s3 & hh & rm3 & _ & _ & _ & Hw).
  exact (wqaf_tail _ _ _ _ _ _ _ _ _ _ _ _ _ Hw).
Qed.

Lemma parse_non_special_tail ctx st se sr l u :
  parse_non_special dbg host_parse host_parse_opaque host_display ovr ctx st se sr l = POk u -> tail_parsed u.
Proof.
  intros H.
  destruct (parse_non_special_case dbg host_parse host_parse_opaque host_display ovr ctx st se sr l u H)
    as [rem _ Ha | r s hh rem _ _ _ Hw | _ _ Hw].
  - exact (after_double_slash_tail _ _ _ _ _ _ Ha).
  - exact (wqaf_tail _ _ _ _ _ _ _ _ _ _ _ _ _ Hw).
  - exact (wqaf_tail _ _ _ _ _ _ _ _ _ _ _ _ _ Hw).
Qed.

Lemma url_with_tail ctx st se sr l s qs fs base :
  parse_query_and_fragment ovr ctx st se sr l = POk (s, qs, fs) -> tail_parsed (url_with base s qs fs).
Proof. apply (pqf_tail _ _ _ _ _ _ _ _ _ (url_with base)). repeat split. Qed.

Lemma file_url_tail ctx st se sr l s qs fs hs he hi :
  parse_query_and_fragment ovr ctx st se sr l = POk (s, qs, fs) -> tail_parsed (file_url s hs he hi qs fs).
Proof. apply (pqf_tail _ _ _ _ _ _ _ _ _ (fun s qs fs => file_url s hs he hi qs fs)). repeat split. Qed.

Lemma empty_ref_tail b : tail_origin (Some b) (url_with b (b_before_fragment b) (query_start b) None).
Proof. right. exists b. split; [reflexivity|]. right. repeat split. Qed.

Lemma fragment_only_tail b l u : fragment_only b l = POk u -> tail_origin (Some b) u.
Proof. intros H. right. exists b. split; [reflexivity|]. left. exists l. exact H. Qed.

Lemma parse_relative_tail ctx st base l u :
  parse_relative dbg host_parse host_parse_opaque host_display ovr ctx st base l = POk u -> tail_origin (Some base) u.
Proof.
  intros H.
  destruct (parse_relative_case dbg host_parse host_parse_opaque host_display ovr ctx st base l u H)
    as [-> | s qs fs Hq -> | Hf | x Ha | r s hh rem _ Hw | s1 x s3 hh rem _ _ _ Hw].
  - apply empty_ref_tail.
  - left. eapply url_with_tail. exact Hq.
  - exact (fragment_only_tail base l u Hf).
  - left. exact (after_double_slash_tail _ _ _ _ _ _ Ha).
  - left. exact (wqaf_tail _ _ _ _ _ _ _ _ _ _ _ _ _ Hw).
  - left. exact (wqaf_tail _ _ _ _ _ _ _ _ _ _ _ _ _ Hw).
Qed.

Lemma parse_file_tail ctx st base_file l u :
  parse_file dbg host_parse host_display ovr ctx st base_file l = POk u -> tail_origin base_file u.
Proof.
  intros H.
  destruct (parse_file_case dbg host_parse host_display ovr ctx st base_file l u H)
    as [an ser1 flag hi remaining ser2 hh rem2 ser4 qs fs _ _ [(_ & Hc & ->)|(_ & Hc & ->)]
       | ser1 he hi ser2 hh rem ser3 qs fs _ _ Hq ->
       | b -> -> | b s qs fs -> Hq -> | b -> Hf | b s1 s2 hh rem -> _ _ Hw
       | s2 hh rem s3 qs fs _ Hq ->].
  - left. eapply file_url_tail. exact Hc.
  - left. eapply file_url_tail. exact Hc.
  - left. eapply file_url_tail. exact Hq.
  - apply empty_ref_tail.
  - left. eapply url_with_tail. exact Hq.
  - exact (fragment_only_tail b l u Hf).
  - left. exact (wqaf_tail _ _ _ _ _ _ _ _ _ _ _ _ _ Hw).
  - left. eapply file_url_tail. exact Hq.
Qed.

Theorem parse_url_tail base input u :
  parse_url dbg host_parse host_parse_opaque host_display ovr base input = POk u -> tail_origin base u.
Proof.
  intros H. destruct (parse_url_case dbg host_parse host_parse_opaque host_display ovr base input u H) as [b l -> Hf | bf l Hbf Hf | sch l0 l _ _ Ha | b l -> _ _ Hr | sch l _ _ Hn].
  - exact (fragment_only_tail b l u Hf).
  - apply parse_file_tail in Hf. destruct bf as [b|]; [destruct Hbf as [-> _]; exact Hf|].
    destruct Hf as [Hf|(b' & E & _)]; [left; exact Hf | discriminate E].
  - left. exact (after_double_slash_tail _ _ _ _ _ _ Ha).
  - exact (parse_relative_tail _ _ _ _ _ Hr).
  - left. exact (parse_non_special_tail _ _ _ _ _ _ Hn).
Qed.

End WithHosts.
