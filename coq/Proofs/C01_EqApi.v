(* Proofs/C01_EqApi.v - the abstraction of the C01 equivalence: the ten API strings of a model
   record, computed as url::quirks computes them (the q_ getters of Model/Setters.v), and their evaluation on a
   structurally well-formed record as pieces of the serialization. *)
From RU Require Import Base.Prelude Model.UrlRecord Model.Parser Model.Setters Model.WF Proofs.ListN
  Proofs.C03_WF.

(* href, protocol, username, password, host, hostname, port, pathname, search, hash.
   None = one of the quirks getters panics. *)
Definition api_of_model (dbg : bool) (u : url) : option (list (list N)) :=
  pr <- q_protocol u ;; un <- q_username dbg u ;; pw <- q_password dbg u ;; h <- q_host dbg u ;;
  hn <- q_hostname u ;; po <- q_port dbg u ;; pa <- q_pathname u ;; se <- q_search dbg u ;;
  ha <- q_hash dbg u ;;
  Some [q_href u; pr; un; pw; h; hn; po; pa; se; ha].

Lemma list10_eq {A} (a1 a2 a3 a4 a5 a6 a7 a8 a9 a10 b1 b2 b3 b4 b5 b6 b7 b8 b9 b10 : A) :
  a1 = b1 -> a2 = b2 -> a3 = b3 -> a4 = b4 -> a5 = b5 -> a6 = b6 -> a7 = b7 -> a8 = b8 -> a9 = b9 -> a10 = b10 ->
  [a1; a2; a3; a4; a5; a6; a7; a8; a9; a10] = [b1; b2; b3; b4; b5; b6; b7; b8; b9; b10].
Proof. intros; subst; reflexivity. Qed.

Section Eval.
Variable dbg : bool.
Variable u : url.
Hypothesis Hwf : wf_b u = true.

Let P (p : position) : N := pidx u p.

Lemma q_protocol_eval : q_protocol u = Some (nfirstn (scheme_end u + 1) (ser u)).
Proof.
  destruct (wf_scheme_facts u Hwf) as (_ & _ & Hlt).
  unfold q_protocol. rewrite (scheme_eval u Hwf). cbn [bindo]. unfold piece. cbn [pidx].
  rewrite N.sub_0_r, nskipn_0. rewrite nlen_nfirstn by lia. apply slice_to_o_some. lia.
Qed.

Theorem api_of_model_eval :
  api_of_model dbg u = Some
    [ ser u;
      nfirstn (scheme_end u + 1) (ser u);
      piece u (P BeforeUsername) (P AfterUsername);
      (if has_password_b u then piece u (P BeforePassword) (P AfterPassword) else []);
      piece u (P BeforeHost) (P AfterPort);
      (if has_host u then piece u (P BeforeHost) (P AfterHost) else []);
      piece u (P BeforePort) (P AfterPort);
      piece u (P BeforePath) (P AfterPath);
      q_trim (piece u (P AfterPath) (P AfterQuery));
      q_trim (nskipn (P AfterQuery) (ser u)) ].
Proof.
  unfold api_of_model. rewrite q_protocol_eval. cbn [bindo].
  unfold q_username. rewrite (username_eval dbg u Hwf). cbn [bindo].
  unfold q_password. rewrite (password_piece dbg u Hwf). cbn [bindo].
  unfold q_host. rewrite (index_range_eval dbg u Hwf BeforeHost AfterPort) by (cbn; lia). cbn [bindo].
  unfold q_hostname. rewrite (host_str_eval u Hwf). cbn [bindo].
  unfold q_port. rewrite (index_range_eval dbg u Hwf BeforePort AfterPort) by (cbn; lia). cbn [bindo].
  unfold q_pathname. rewrite (path_eval u Hwf). cbn [bindo].
  unfold q_search. rewrite (index_range_eval dbg u Hwf AfterPath AfterQuery) by (cbn; lia). cbn [bindo].
  unfold q_hash. rewrite (index_from_eval dbg u Hwf AfterQuery). cbn [bindo].
  unfold q_href, piece, P.
  destruct (has_password_b u); destruct (has_host u); reflexivity.
Qed.

End Eval.

(* the ten strings from the accessors *)
Definition optl (o : option (list N)) : list N := match o with Some x => x | None => [] end.
Definition port_suffix (p : option N) : list N := match p with Some x => 58 :: decimal x | None => [] end.
Definition port_text (p : option N) : list N := match p with Some x => decimal x | None => [] end.
Definition qtext (q : option (list N)) : list N := match q with Some x => 63 :: x | None => [] end.
Definition ftext (f : option (list N)) : list N := match f with Some x => 35 :: x | None => [] end.

Definition api_of_parts (s sch un : list N) (pw hs : option (list N)) (po : option N) (pth : list N)
           (q f : option (list N)) : list (list N) :=
  [s; sch ++ [58]; un; optl pw; optl hs ++ port_suffix po; optl hs; port_text po; pth;
   q_trim (qtext q); q_trim (ftext f)].

Ltac from_eval L E :=
  let H := fresh in pose proof L as H; rewrite E in H; injection H as H; exact H.

Section ByAccessors.
Variable dbg : bool.
Variable u : url.
Hypothesis Hwf : wf_b u = true.

Theorem api_by_accessors sch un pw hs pth q f :
  scheme u = Some sch -> username dbg u = Some un -> password dbg u = Some pw -> host_str u = Some hs ->
  path u = Some pth -> query dbg u = Some q -> fragment dbg u = Some f ->
  api_of_model dbg u = Some (api_of_parts (ser u) sch un pw hs (port u) pth q f).
Proof.
  intros Es Eun Epw Ehs Ept Eq Ef.
  assert (sch = piece u (pidx u BeforeScheme) (pidx u AfterScheme)) as Es'
    by (from_eval (scheme_eval u Hwf) Es).
  assert (un = piece u (pidx u BeforeUsername) (pidx u AfterUsername)) as Eun'
    by (from_eval (username_eval dbg u Hwf) Eun).
  assert (pw = if has_password_b u then Some (piece u (pidx u BeforePassword) (pidx u AfterPassword)) else None) as Epw'
    by (from_eval (password_piece dbg u Hwf) Epw).
  assert (hs = if has_host u then Some (piece u (pidx u BeforeHost) (pidx u AfterHost)) else None) as Ehs'
    by (from_eval (host_str_eval u Hwf) Ehs).
  assert (pth = piece u (pidx u BeforePath) (pidx u AfterPath)) as Ept'
    by (from_eval (path_eval u Hwf) Ept).
  assert (q = match query_start u with Some _ => Some (piece u (pidx u BeforeQuery) (pidx u AfterQuery)) | None => None end) as Eq'
    by (from_eval (query_eval dbg u Hwf) Eq).
  assert (f = match fragment_start u with Some _ => Some (piece u (pidx u BeforeFragment) (pidx u AfterFragment)) | None => None end) as Ef'
    by (from_eval (fragment_eval dbg u Hwf) Ef).
  clear Es Eun Epw Ehs Ept Eq Ef. subst sch un pw hs pth q f.
  rewrite (api_of_model_eval dbg u Hwf). f_equal. unfold api_of_parts.
  assert (forall p q, (pos_rank p <= pos_rank q)%nat -> pidx u p <= pidx u q) as Mono
    by (intros; apply pidx_monotone; assumption).
  destruct (wf_scheme_facts u Hwf) as (_ & Hc & Hlt).
  assert (piece u (pidx u BeforeHost) (pidx u AfterHost) = optl (if has_host u then Some (piece u (pidx u BeforeHost) (pidx u AfterHost)) else None)) as Hhost.
  { destruct (has_host u) eqn:Hh; [reflexivity|]. cbn [optl pidx].
    destruct (accessors_reconcatenate dbg u Hwf) as (? & ? & ? & ? & ? & ? & ? & _ & _ & _ & _ & _ & _ & _ & _ & _ & K).
    exact (K Hh). }
  assert (forall k, piece u 0 k = nfirstn k (ser u)) as P0.
  { intros k. unfold piece. rewrite N.sub_0_r, nskipn_0. reflexivity. }
  apply list10_eq.
  - reflexivity.
  - (* protocol *)
    rewrite <- P0. rewrite <- (piece_cat u 0 (scheme_end u) (scheme_end u + 1)) by lia.
    rewrite (piece_byte u (scheme_end u) 58) by (apply byte_eqb_nnth; exact Hc).
    reflexivity.
  - reflexivity.
  - destruct (has_password_b u); reflexivity.
  - (* host *)
    rewrite <- (piece_cat u (pidx u BeforeHost) (pidx u AfterHost) (pidx u AfterPort))
      by (apply Mono; cbn; lia).
    rewrite <- (piece_cat u (pidx u AfterHost) (pidx u BeforePort) (pidx u AfterPort))
      by (apply Mono; cbn; lia).
    rewrite (piece_port_sep u Hwf), (piece_port u Hwf).
    destruct (has_host u) eqn:Hh; cbn [optl] in *; [|rewrite Hhost]; destruct (port u); reflexivity.
  - destruct (has_host u); reflexivity.
  - rewrite (piece_port u Hwf). reflexivity.
  - reflexivity.
  - (* search *)
    rewrite <- (piece_cat u (pidx u AfterPath) (pidx u BeforeQuery) (pidx u AfterQuery))
      by (apply Mono; cbn; lia).
    rewrite (piece_query_sep u Hwf).
    destruct (query_start u) as [qs|] eqn:Eqs; [reflexivity|].
    cbn [pidx]. rewrite Eqs. destruct (fragment_start u); rewrite piece_empty; reflexivity.
  - (* hash *)
    assert (nskipn (pidx u AfterQuery) (ser u) = piece u (pidx u AfterQuery) (pidx u AfterFragment)) as ->.
    { unfold piece. cbn [pidx]. rewrite nfirstn_all; [reflexivity|]. rewrite nlen_nskipn. lia. }
    rewrite <- (piece_cat u (pidx u AfterQuery) (pidx u BeforeFragment) (pidx u AfterFragment))
      by (apply Mono; cbn; lia).
    rewrite (piece_fragment_sep u Hwf).
    destruct (fragment_start u) as [fs|] eqn:Efs; [reflexivity|].
    cbn [pidx]. rewrite Efs. rewrite piece_empty. reflexivity.
Qed.

End ByAccessors.
