(* Proofs/C08_Contain.v - the containment law: a reference without scheme and without two leading
   slashes never changes what is in front of the path.
   Route: the path states never touch the serialization below path_start (the invariant PInv of
   C06_PathParser, here for the URL-parser context where the loop stops at '?' / '#'); the record
   with the new path is C06_Path.with_path (well-formed, same front); query and fragment are appended by
   the elementary edits of C06_Steps.  The dispatch of the join into its five arms is proved once, for an
   arbitrary conclusion (join_nonfile_cases); contain_auth here and C08_NoAuth.contain_noauth instantiate it. *)
From RU Require Import Base.Prelude Base.Utf8 Base.Utf8Facts Model.AsciiSet Gen.Tables Model.PercentEncoding
  Model.HostT Model.UrlRecord Model.Parser Model.Setters Model.WF Model.KnownC08
  Proofs.ListN Proofs.C14_Enc Proofs.C02_Enc Proofs.C02_Parts Proofs.C02_Opaque Proofs.C03_WF Proofs.C06_List
  Proofs.C06_WFI Proofs.C06_Tail Proofs.C06_Steps Proofs.C06_FragQuery Proofs.C06_Suffix Proofs.C06_Front
  Proofs.C06_PathParser Proofs.C06_Path Proofs.C08_Input Proofs.C08_Simple.

(* the loop in the URL-parser context *)
Definition rem_ok (rem : list N) : Prop :=
  rem = [] \/ exists c r, rem = c :: r /\ is_tnl c = false /\ ((c =? 63) || (c =? 35)) = true.

Section PathInvUrl.
Variables (dbg : bool) (ps m : N) (pre : list N).
Hypothesis Hm1 : ps <= m.
Hypothesis Hm2 : m <= ps + 1.
Hypothesis Hpre : nlen pre = m.

Lemma pinv_loop_url st l : (st_is_file st = true -> m = ps) ->
  forall ser seg_start pending hh s' hh' rem,
  parse_path_loop dbg CUrlParser st ps l ser seg_start pending hh = POk (s', hh', rem) ->
  PInv ps m pre ser -> m <= seg_start -> usv_list l -> usv_list pending ->
  (exists x, s' = file_path_fixup st ps x /\ PInv ps m pre x) /\ usv_list rem /\ rem_ok rem.
Proof.
  intros Hf. induction l as [|c r IH]; intros ser seg_start pending hh s' hh' rem H I Hs Hl Hp;
    cbn [parse_path_loop] in H.
  - destruct (finish_segment dbg st ps (push_pending CUrlParser st ser pending) seg_start false hh) as [[s2 h2]| |] eqn:E;
      cbn [pbind] in H; try discriminate.
    injection H as E1 E2 E3. subst s' hh' rem. split; [|split; [constructor | left; reflexivity]]. exists s2. split; [reflexivity|].
    eapply pinv_finish_segment; try eassumption. apply pinv_push_pending; assumption.
  - pose proof Hl as Hl0. apply usv_cons in Hl. destruct Hl as [Hc Hr].
    destruct (is_tnl c) eqn:Et.
    { eapply IH; [exact H | apply pinv_push_pending; assumption | exact Hs | exact Hr | constructor]. }
    cbn [ctx_eqb negb andb] in H.
    destruct ((c =? 47) || (c =? 92) && st_is_special st).
    { destruct (finish_segment dbg st ps (push_pending CUrlParser st ser pending ++ [47]) seg_start true hh) as [[s2 h2]| |] eqn:E;
        cbn [pbind] in H; try discriminate.
      assert (PInv ps m pre s2) as I2.
      { eapply pinv_finish_segment; try eassumption. apply pinv_app; try assumption; [apply pinv_push_pending; assumption | reflexivity]. }
      eapply IH; [exact H | exact I2 | eapply pinv_len; eassumption | exact Hr | constructor]. }
    rewrite andb_true_r in H.
    destruct ((c =? 63) || (c =? 35)) eqn:Eqh.
    { destruct (finish_segment dbg st ps (push_pending CUrlParser st ser pending) seg_start false hh) as [[s2 h2]| |] eqn:E;
        cbn [pbind] in H; try discriminate.
      injection H as E1 E2 E3. subst s' hh' rem. split; [|split; [exact Hl0 | right; exists c, r; repeat split; assumption]].
      exists s2. split; [reflexivity|].
      eapply pinv_finish_segment; try eassumption. apply pinv_push_pending; assumption. }
    destruct (st_is_file st && (ps <? nlen ser) && is_normalized_wdl (nskipn (ps + 1) ser)).
    { eapply IH; [exact H | | | exact Hr | constructor; [exact Hc | constructor]].
      - apply pinv_app; try assumption; [apply pinv_push_pending; assumption | reflexivity].
      - lia. }
    eapply IH; [exact H | exact I | exact Hs | exact Hr | constructor; assumption].
Qed.

End PathInvUrl.

(* small record facts *)
Lemma url_with_main v b s qs fs : same_main b v -> url_with v s qs fs = url_with b s qs fs.
Proof. intros (E1 & E2 & E3 & E4 & E5 & E6 & E7). unfold url_with. rewrite E1, E2, E3, E4, E5, E6, E7. reflexivity. Qed.

Lemma url_with_noqf v : query_start v = None -> fragment_start v = None -> url_with v (ser v) None None = v.
Proof. destruct v. simpl. intros -> ->. reflexivity. Qed.

Lemma same_main_sym u v : same_main u v -> same_main v u.
Proof. intros (E1 & E2 & E3 & E4 & E5 & E6 & E7). repeat split; symmetry; assumption. Qed.

Lemma same_main_url_with b s qs fs : same_main b (url_with b s qs fs).
Proof. repeat split. Qed.

Lemma before_query_prefix b : wf_b b = true ->
  nfirstn (path_start b) (b_before_query b) = nfirstn (path_start b) (ser b).
Proof.
  intros W. pose proof (wf_qf_facts b W) as QF. pose proof (qf_q QF) as Q1. pose proof (qf_f QF) as Q2.
  unfold b_before_query. destruct (query_start b) as [q|]; [apply nfirstn_nfirstn; lia|].
  destruct (fragment_start b) as [f|]; [apply nfirstn_nfirstn; lia | reflexivity].
Qed.

(* query and fragment appended to a record that has neither *)
Section Tail.
Variable dbg : bool.

Lemma pqf_on_clean v st l s qs fs : wf_b v = true -> query_start v = None -> fragment_start v = None ->
  usv_list l ->
  parse_query_and_fragment None CUrlParser st (scheme_end v) (ser v) l = POk (s, qs, fs) ->
  let u' := url_with v s qs fs in
  wf_b u' = true /\ same_front dbg v u' /\ same_main v u' /\ path u' = path v
  /\ agree_pre (nlen (ser v)) (ser v) (ser u').
Proof.
  intros W Eq Ef Hl H u'.
  destruct (pqf_out None st (scheme_end v) _ l s qs fs Hl eq_refl H) as (Es & Eqs & Efs & _ & _ & Cq & _).
  assert (agree_pre (nlen (ser v)) (ser v) (ser u')) as Hpre.
  { subst u'. unfold url_with. cbn [ser]. rewrite Es. apply agree_pre_app_r. }
  destruct (pqf_q st l) as [Q|] eqn:EQ.
  - cbn [opt_clean] in Cq. pose proof (clean_query_no_h _ _ Cq) as HQ.
    destruct (add_query_step dbg v Q W Ef Eq HQ) as (W3 & SF3 & SM3 & P3 & Q3 & Ef3).
    set (u3 := add_query v Q) in *.
    destruct (pqf_f l) as [x|] eqn:EF.
    + destruct (add_fragment_step dbg u3 x W3 Ef3) as (W4 & SF4 & SM4 & P4 & Q4 & Qs4 & F4).
      assert (u' = add_fragment u3 x) as E.
      { subst u' u3 s qs fs. unfold add_fragment, add_query, url_with, qf_text, qf_qtext, qf_ftext, qf_qs, qf_fs,
          set_fragment_start, set_query_start, set_ser.
        cbn [ser scheme_end username_end host_start host_end hosti port path_start query_start fragment_start].
        f_equal.
        - rewrite <- app_assoc. reflexivity.
        - rewrite nlen_app. reflexivity. }
      rewrite E. split; [exact W4|]. split; [eapply same_front_trans; eassumption|].
      split; [eapply same_main_trans; eassumption|]. split; [congruence|]. rewrite E in Hpre; exact Hpre.
    + assert (u' = u3) as E.
      { subst u' u3 s qs fs. unfold add_query, url_with, qf_text, qf_qtext, qf_ftext, qf_qs, qf_fs, set_query_start, set_ser.
        cbn [ser scheme_end username_end host_start host_end hosti port path_start query_start fragment_start].
        rewrite app_nil_r. f_equal. symmetry. exact Ef. }
      rewrite E. split; [exact W3|]. split; [exact SF3|]. split; [exact SM3|]. split; [exact P3|]. rewrite E in Hpre; exact Hpre.
  - destruct (pqf_f l) as [x|] eqn:EF.
    + destruct (add_fragment_step dbg v x W Ef) as (W4 & SF4 & SM4 & P4 & Q4 & Qs4 & F4).
      assert (u' = add_fragment v x) as E.
      { subst u' s qs fs. unfold add_fragment, url_with, qf_text, qf_qtext, qf_ftext, qf_qs, qf_fs, set_fragment_start, set_ser.
        cbn [ser scheme_end username_end host_start host_end hosti port path_start query_start fragment_start app nlen length].
        f_equal; [symmetry; exact Eq | f_equal; unfold nlen; cbn; lia]. }
      rewrite E. split; [exact W4|]. split; [exact SF4|]. split; [exact SM4|]. split; [exact P4|]. rewrite E in Hpre; exact Hpre.
    + assert (u' = v) as E.
      { subst u' s qs fs. unfold qf_text, qf_qtext, qf_ftext, qf_qs, qf_fs. cbn [app]. rewrite app_nil_r.
        apply url_with_noqf; assumption. }
      rewrite E. split; [exact W|]. split; [apply same_front_refl|]. split; [apply same_main_refl|]. split; [reflexivity|].
      rewrite E in Hpre; exact Hpre.
Qed.

End Tail.

(* the match on the literal '/' *)
Lemma match47 {A} (c : N) (a b : A) :
  (match c with 47 => a | _ => b end) = if c =? 47 then a else b.
Proof.
  destruct c as [|p]; [reflexivity|].
  do 6 (destruct p as [p|p|]; try reflexivity).
Qed.

(* the base has an authority (and is not a file URL) *)
Section Contain.
Variables (dbg : bool) (hp hpo : list N -> result host) (hd : host -> list N).
Notation join b input := (parse_url dbg hp hpo hd None (Some b) input).

(* with_query_and_fragment after the path state, base with authority *)
Lemma wqf_auth b st s rem u' : wf_b b = true -> has_authority_b b = true ->
  PInv (path_start b) (path_start b + 1) (nfirstn (path_start b) (ser b) ++ [47]) s ->
  usv_list rem ->
  with_query_and_fragment None CUrlParser st (scheme_end b) (username_end b) (host_start b) (host_end b)
    (hosti b) (port b) (path_start b) s rem = POk u' ->
  wf_b u' = true /\ same_front dbg b u' /\ same_main b u' /\ agree_pre (path_start b) (ser b) (ser u').
Proof.
  intros W Ha I Hrem H.
  pose proof (wf_auth_facts b W Ha) as F.
  pose proof (af_ue F) as B1. pose proof (af_hs F) as B2. pose proof (af_he F) as B3. pose proof (af_ps F) as B4.
  pose proof (path_start_le_len b W) as B5.
  set (ps := path_start b) in *. set (se := scheme_end b) in *.
  assert (nlen (nfirstn ps (ser b)) = ps) as Lp by (apply nlen_nfirstn; exact B5).
  assert (nlen (nfirstn ps (ser b) ++ [47]) = ps + 1) as Lpre by (rewrite nlen_app, Lp; reflexivity).
  pose proof (pinv_len ps (ps + 1) _ ltac:(lia) ltac:(lia) Lpre s I) as Ls.
  destruct I as [I1 I2].
  assert (nfirstn ps s = nfirstn ps (ser b)) as Hpre.
  { rewrite <- (nfirstn_nfirstn ps (ps + 1) s) by lia. rewrite I1. rewrite nfirstn_app_le by lia.
    apply nfirstn_all. lia. }
  assert (exists P', nskipn ps s = 47 :: P') as (P' & HP).
  { assert (nnth s ps = Some 47) as Hn.
    { rewrite <- (pre_nnth (ps + 1) s (nfirstn (ps + 1) s) ps) by (try apply agree_pre_trunc; lia).
      rewrite I1. rewrite nnth_app_ge by lia. rewrite Lp, N.sub_diag. reflexivity. }
    pose proof (piece_one s ps 47 Hn) as Hone.
    destruct (nskipn ps s) as [|x P']; [discriminate|]. exists P'. unfold nfirstn in Hone. change (N.to_nat 1) with 1%nat in Hone. cbn [firstn] in Hone. congruence. }
  (* the record with the new path *)
  destruct (without_query_spec dbg b W) as (W1 & SF1 & SM1 & P1 & Eq1 & Ef1 & Es1 & _).
  set (u1 := without_query b) in *.
  assert (has_authority_b u1 = true) as Ha1.
  { rewrite <- Ha. apply (has_authority_b_pre ps); [|fold se; lia | reflexivity].
    unfold agree_pre. rewrite Es1. apply before_query_prefix. exact W. }
  assert (path_end u1 = nlen (ser u1)) as Epe by (unfold path_end; rewrite Eq1, Ef1; reflexivity).
  assert (nfirstn ps (ser u1) = nfirstn ps (ser b)) as Hpre1 by (rewrite Es1; apply before_query_prefix; exact W).
  set (P := 47 :: P').
  assert (forallb no_qh P = true) as HP1 by (subst P; rewrite <- HP; exact I2).
  assert (P = [] \/ exists r, P = 47 :: r) as HP2 by (right; exists P'; reflexivity).
  set (u2 := with_path u1 P).
  pose proof (wp_wf u1 P W1 Ha1 HP1 HP2) as W2. pose proof (wp_front dbg u1 P W1 Ha1 HP1 HP2) as SF2.
  assert (ser u2 = s) as Es2.
  { subst u2. unfold with_path. cbn [ser]. rewrite Epe. rewrite nskipn_all by lia. rewrite app_nil_r.
    replace (path_start u1) with ps by reflexivity. rewrite Hpre1, <- Hpre. subst P. rewrite <- HP. apply nfirstn_nskipn. }
  assert (query_start u2 = None /\ fragment_start u2 = None) as [Eq2 Ef2].
  { subst u2. unfold with_path. cbn [query_start fragment_start]. rewrite Eq1, Ef1. split; reflexivity. }
  assert (same_main u1 u2) as SM2 by (repeat split).
  (* evaluate with_query_and_fragment *)
  unfold with_query_and_fragment in H. fold ps se in H.
  replace (ps =? se + 1) with false in H by lia.
  assert ((ps =? se + 3) && list_eqb (nfirstn (ps - se) (nskipn se s)) [58; 47; 46] = false) as Em.
  { destruct (ps =? se + 3) eqn:E3; [|reflexivity]. cbn [andb]. apply N.eqb_eq in E3.
    replace (ps - se) with 3 by lia.
    assert (starts_with s_css (nskipn se s) = true) as Hc.
    { unfold has_authority_b in Ha. fold se in Ha. rewrite <- Ha.
      apply (pre_starts_with ps); [exact Hpre | change (nlen s_css) with 3; lia]. }
    apply starts_with_split in Hc. rewrite Hc. reflexivity. }
  rewrite Em in H. cbn [pbind] in H.
  destruct (parse_query_and_fragment None CUrlParser st se s rem) as [[[s2 qs] fs]| |] eqn:Epqf; cbn [pbind] in H; try discriminate.
  inversion H; subst u'. clear H.
  rewrite <- Es2 in Epqf. replace se with (scheme_end u2) in Epqf by reflexivity.
  destruct (pqf_on_clean dbg u2 st rem s2 qs fs W2 Eq2 Ef2 Hrem Epqf) as (W3 & SF3 & SM3 & P3 & A3).
  assert (url_with u2 s2 qs fs = mkUrl s2 se (username_end b) (host_start b) (host_end b) (hosti b) (port b) ps qs fs) as E
    by reflexivity.
  rewrite E in *.
  split; [exact W3|]. split; [eapply same_front_trans; [exact SF1|]; eapply same_front_trans; eassumption|].
  split; [repeat split|].
  unfold agree_pre. cbn [ser]. rewrite Es2 in A3. cbn [ser] in A3.
  rewrite <- (nfirstn_nfirstn ps (nlen s) s2) by lia. unfold agree_pre in A3. rewrite A3.
  rewrite nfirstn_nfirstn by lia. exact Hpre.
Qed.

(* prefixes of the simple results *)
Lemma ps_le_before_query b : wf_b b = true -> path_start b <= nlen (b_before_query b).
Proof.
  intros W. pose proof (wf_qf_facts b W) as QF. pose proof (qf_q QF) as Q1. pose proof (qf_f QF) as Q2.
  pose proof (path_start_le_len b W). unfold b_before_query.
  destruct (query_start b) as [q|]; [rewrite nlen_nfirstn; lia|].
  destruct (fragment_start b) as [f|]; [rewrite nlen_nfirstn; lia | lia].
Qed.

Lemma before_fragment_prefix b : wf_b b = true ->
  nfirstn (path_start b) (b_before_fragment b) = nfirstn (path_start b) (ser b)
  /\ path_start b <= nlen (b_before_fragment b).
Proof.
  intros W. pose proof (wf_qf_facts b W) as QF. pose proof (qf_f QF) as Q2. pose proof (path_start_le_len b W).
  unfold b_before_fragment. destruct (fragment_start b) as [f|]; [|split; [reflexivity | lia]].
  split; [apply nfirstn_nfirstn; lia | rewrite nlen_nfirstn; lia].
Qed.

Lemma contain_pre_inv b input : contain_pre b input = true ->
  has_scheme_b (ref_text input) = false /\ two_leading_slashes (base_special b) (ref_text input) = false.
Proof.
  unfold contain_pre. intros H. apply andb_true_iff in H. destruct H as [H1 H2].
  split; [destruct (has_scheme_b (ref_text input)) | destruct (two_leading_slashes (base_special b) (ref_text input))];
    try reflexivity; discriminate.
Qed.

Lemma auth_not_cbb b : wf_b b = true -> has_authority_b b = true -> cannot_be_a_base b = Some false.
Proof.
  intros W Ha. rewrite (cannot_be_a_base_eval b W). unfold has_authority_b in Ha.
  destruct (css_bytes _ _ Ha) as (_ & C2 & _). apply byte_eqb_true_iff in C2. rewrite C2. reflexivity.
Qed.

(* the path arms of parse_relative: the loop keeps PInv, with_query_and_fragment finishes; K is what the latter
   is known to guarantee *)
Lemma path_arm (K : url -> Prop) b st s0 r u' : wf_b b = true -> st_is_file st = false ->
  (forall s rem u', PInv (path_start b) (path_start b + 1) (nfirstn (path_start b) (ser b) ++ [47]) s -> usv_list rem ->
     with_query_and_fragment None CUrlParser st (scheme_end b) (username_end b) (host_start b) (host_end b)
       (hosti b) (port b) (path_start b) s rem = POk u' -> K u') ->
  PInv (path_start b) (path_start b + 1) (nfirstn (path_start b) (ser b) ++ [47]) s0 ->
  usv_list r ->
  (p <~ parse_path dbg CUrlParser st true (path_start b) s0 r ;;
   (let '(s, _, rem) := p in
    with_query_and_fragment None CUrlParser st (scheme_end b) (username_end b) (host_start b) (host_end b)
      (hosti b) (port b) (path_start b) s rem)) = POk u' ->
  K u'.
Proof.
  intros W Hnf HK I Hr H. unfold parse_path in H.
  pose proof (path_start_le_len b W) as B5.
  assert (nlen (nfirstn (path_start b) (ser b) ++ [47]) = path_start b + 1) as Lpre.
  { rewrite nlen_app, nlen_nfirstn by exact B5. reflexivity. }
  destruct (parse_path_loop dbg CUrlParser st (path_start b) r s0 (nlen s0) [] true) as [[[s hh] rem]| |] eqn:E;
    cbn [pbind] in H; try discriminate.
  destruct (pinv_loop_url dbg (path_start b) (path_start b + 1) _ ltac:(lia) ltac:(lia) Lpre st r
              ltac:(intros X; rewrite X in Hnf; discriminate) _ _ _ _ _ _ _ E I
              ltac:(eapply pinv_len; [| |exact Lpre|exact I]; lia) Hr ltac:(constructor))
    as ((x & Ex & Ix) & Hrem & _).
  unfold file_path_fixup in Ex. rewrite Hnf in Ex. subst x.
  eapply HK; eassumption.
Qed.

(* the five arms of a join against a base that can be a base and is not a file URL, for a reference inside
   contain_pre: the empty reference, '#', '?', one leading slash, a relative path.  To conclude K of the result it is
   enough that the three closed forms have K, that with_query_and_fragment gives K from PInv, and that the base path,
   if not empty, starts with '/' (so that it has PInv before the relative arm pops its last segment) *)
Theorem join_nonfile_cases (K : url -> Prop) b input u' :
  wf_b b = true -> cannot_be_a_base b = Some false -> st_is_file (b_st b) = false ->
  usv_list input -> contain_pre b input = true ->
  (path_start b < nlen (b_before_query b) -> byte_eqb (b_before_query b) (path_start b) 47 = true) ->
  K (without_fragment b) ->
  (forall x, K (with_fragment b x)) ->
  (forall Q F, forallb no_h Q = true -> K (with_query b Q F)) ->
  (forall s rem u', PInv (path_start b) (path_start b + 1) (nfirstn (path_start b) (ser b) ++ [47]) s -> usv_list rem ->
     with_query_and_fragment None CUrlParser (b_st b) (scheme_end b) (username_end b) (host_start b) (host_end b)
       (hosti b) (port b) (path_start b) s rem = POk u' -> K u') ->
  join b input = POk u' -> K u'.
Proof.
  intros W Hc Hnf Hu Hcp Hbyte Kempty Kfrag Kquery Kwqf.
  destruct (contain_pre_inv b input Hcp) as [Hns H2s].
  destruct (ref_text input) as [|c t] eqn:Et.
  { rewrite (join_empty dbg hp hpo hd b input Hc Et). intros H. inversion H; subst u'. exact Kempty. }
  destruct (N.eq_dec c 35) as [->|N35].
  { intros H. rewrite (join_frag_out dbg hp hpo hd b input t u' Hu Et H). apply Kfrag. }
  destruct (N.eq_dec c 63) as [->|N63].
  { intros H. destruct (join_query dbg hp hpo hd b input t u' W Hc Hu Et H) as [-> HQ]. apply Kquery. exact HQ. }
  (* the path arms *)
  unfold parse_url. set (l := input_new_trim_c0 input). change (ntnl l = c :: t) in Et.
  assert (usv_list l) as Hl by (apply usv_trim; exact Hu).
  rewrite parse_scheme_none by (rewrite Et; exact Hns).
  destruct (inp_next_some l c t Et) as (r & En & Er & Ect).
  pose proof (inp_next_usv l c r Hl En) as Hr.
  unfold inp_starts_with_char. rewrite En. replace (c =? 35) with false by lia. rewrite Hc.
  fold (b_st b). rewrite Hnf. unfold parse_relative, inp_split_first. rewrite En.
  replace (c =? 63) with false by lia. replace (c =? 35) with false by lia.
  pose proof (path_start_le_len b W) as B5.
  assert (nlen (nfirstn (path_start b) (ser b)) = path_start b) as Lp by (apply nlen_nfirstn; exact B5).
  assert (PInv (path_start b) (path_start b + 1) (nfirstn (path_start b) (ser b) ++ [47])
               (nfirstn (path_start b) (ser b) ++ [47])) as I0.
  { split.
    - apply nfirstn_all. rewrite nlen_app, Lp. change (nlen [47]) with 1. lia.
    - rewrite nskipn_app_ge by lia. rewrite Lp, N.sub_diag. reflexivity. }
  destruct ((c =? 47) || (c =? 92) && st_is_special (b_st b)) eqn:Esl.
  - (* one leading slash *)
    destruct (inp_count_matching (fun d => (d =? 47) || (d =? 92) && st_is_special (b_st b)) l) as [sl rem'] eqn:Ecm.
    assert (sl < 2) as Hsl.
    { pose proof (inp_count_matching_fst (fun d => (d =? 47) || (d =? 92) && st_is_special (b_st b)) l) as Hf.
      rewrite Ecm in Hf. cbn [fst] in Hf. rewrite Hf, Et. apply count_leading_lt2. exact H2s. }
    replace (2 <=? sl) with false by lia.
    apply (path_arm K); assumption.
  - (* a relative path: pop the last segment of the base path *)
    destruct (without_query_spec dbg b W) as (W1 & _ & _ & _ & Eq1 & Ef1 & Es1 & _).
    set (u1 := without_query b) in *.
    pose proof (qf_facts_of u1 W1) as (_ & _ & _ & Q4 & _).
    assert (path_end u1 = nlen (ser u1)) as Epe by (unfold path_end; rewrite Eq1, Ef1; reflexivity).
    rewrite Epe in Q4. replace (path_start u1) with (path_start b) in Q4 by reflexivity.
    pose proof (ps_le_before_query b W) as Lq. rewrite <- Es1 in Lq, Hbyte.
    rewrite nfirstn_all in Q4 by (rewrite nlen_nskipn; lia).
    assert (nfirstn (path_start b) (ser u1) = nfirstn (path_start b) (ser b)) as Hp1
      by (rewrite Es1; apply before_query_prefix; exact W).
    rewrite <- Es1.
    destruct (pop_path (b_st b) (path_start b) (ser u1)) as [s1| |] eqn:Epop; cbn [pbind]; try discriminate.
    rewrite inp_is_empty_ntnl, Et. cbn [negb]. rewrite orb_true_r, andb_true_r.
    assert (PInv (path_start b) (path_start b + 1) (nfirstn (path_start b) (ser b) ++ [47])
                 (if nlen s1 =? path_start b then s1 ++ [47] else s1)) as I.
    { destruct (N.eq_dec (nlen (ser u1)) (path_start b)) as [Elen|Nlen].
      - (* empty base path *)
        unfold pop_path in Epop. replace (path_start b <? nlen (ser u1)) with false in Epop by lia.
        injection Epop as <-. rewrite <- Es1. replace (nlen (ser u1) =? path_start b) with true by lia.
        replace (ser u1) with (nfirstn (path_start b) (ser b)); [exact I0|].
        rewrite <- Hp1. apply nfirstn_all. lia.
      - (* non-empty base path: it starts with '/' *)
        assert (PInv (path_start b) (path_start b + 1) (nfirstn (path_start b) (ser b) ++ [47]) (ser u1)) as I1.
        { split; [|exact Q4]. specialize (Hbyte ltac:(lia)). apply byte_eqb_nnth in Hbyte.
          replace (path_start b + 1) with (path_start b + (path_start b + 1 - path_start b)) by lia.
          unfold nfirstn at 1. rewrite N2Nat.inj_add. rewrite firstn_add_nat. fold (nfirstn (path_start b) (ser u1)).
          rewrite Hp1. f_equal. replace (path_start b + 1 - path_start b) with 1 by lia.
          exact (piece_one _ _ _ Hbyte). }
        assert (nlen (nfirstn (path_start b) (ser b) ++ [47]) = path_start b + 1) as Lpre by (rewrite nlen_app, Lp; reflexivity).
        pose proof (pinv_pop_path (path_start b) (path_start b + 1) _ ltac:(lia) ltac:(lia) Lpre _ _ _ Epop I1) as I2.
        pose proof (pinv_len (path_start b) (path_start b + 1) _ ltac:(lia) ltac:(lia) Lpre _ I2).
        replace (nlen s1 =? path_start b) with false by lia. exact I2. }
    rewrite match47. replace (c =? 47) with false by (destruct (c =? 47); [discriminate Esl | reflexivity]).
    apply (path_arm K); assumption.
Qed.

Theorem contain_auth b input u' :
  wf_b b = true -> has_authority_b b = true -> st_is_file (b_st b) = false ->
  usv_list input -> contain_pre b input = true ->
  join b input = POk u' ->
  wf_b u' = true /\ same_front dbg b u' /\ same_main b u' /\ agree_pre (path_start b) (ser b) (ser u').
Proof.
  intros W Ha Hnf Hu Hcp.
  apply (join_nonfile_cases (fun u' => wf_b u' = true /\ same_front dbg b u' /\ same_main b u'
                                        /\ agree_pre (path_start b) (ser b) (ser u')));
    try assumption.
  - exact (auth_not_cbb b W Ha).
  - (* a non-empty path behind an authority starts with '/' *)
    intros Hlt. destruct (without_query_spec dbg b W) as (W1 & _ & _ & _ & Eq1 & Ef1 & Es1 & _).
    set (u1 := without_query b) in *. rewrite <- Es1 in *.
    pose proof (qf_facts_of u1 W1) as (_ & _ & _ & Q4 & _).
    assert (path_end u1 = nlen (ser u1)) as Epe by (unfold path_end; rewrite Eq1, Ef1; reflexivity).
    rewrite Epe in Q4. replace (path_start u1) with (path_start b) in Q4 by reflexivity.
    rewrite nfirstn_all in Q4 by (rewrite nlen_nskipn; lia).
    pose proof W1 as W1'. apply wf_b_iff in W1'. destruct W1' as (_ & HA & _).
    assert (has_authority_b u1 = true) as Ha1.
    { rewrite <- Ha. apply (has_authority_b_pre (path_start b)); [rewrite Es1; apply before_query_prefix; exact W | | reflexivity].
      pose proof (wf_auth_facts b W Ha) as F. pose proof (af_ue F); pose proof (af_hs F); pose proof (af_he F); pose proof (af_ps F). lia. }
    rewrite Ha1 in HA. destruct HA as [_ HPS]. unfold pathstart_ok in HPS.
    replace (path_start u1) with (path_start b) in HPS by reflexivity.
    destruct HPS as [HPS|[HPS|[HPS|HPS]]]; [lia | exact HPS | |];
      exfalso; apply byte_eqb_nnth in HPS;
      pose proof (piece_one _ _ _ HPS) as Hone; destruct (nskipn (path_start b) (ser u1)) as [|x y]; try discriminate;
      unfold nfirstn in Hone; change (N.to_nat 1) with 1%nat in Hone; cbn [firstn] in Hone; inversion Hone; subst x;
      cbn [forallb] in Q4; discriminate.
  - destruct (without_fragment_spec dbg b W) as (W1 & SF1 & SM1 & _ & _ & _ & _ & _ & Es1).
    split; [exact W1|]. split; [exact SF1|]. split; [exact SM1|]. unfold agree_pre. rewrite Es1.
    apply before_fragment_prefix. exact W.
  - intros x. destruct (with_fragment_spec dbg b x W) as (W1 & SF1 & SM1 & _ & _ & _ & Es1).
    split; [exact W1|]. split; [exact SF1|]. split; [exact SM1|]. unfold agree_pre. rewrite Es1.
    destruct (before_fragment_prefix b W) as [A1 A2]. rewrite nfirstn_app_le by exact A2. exact A1.
  - intros Q F HQ. destruct (with_query_spec dbg hp hpo b Q F W HQ) as (W1 & SF1 & SM1 & _).
    split; [exact W1|]. split; [exact SF1|]. split; [exact SM1|]. unfold agree_pre, with_query, url_with. cbn [ser].
    rewrite nfirstn_app_le by (apply ps_le_before_query; exact W). apply before_query_prefix. exact W.
  - intros s rem v I Hrem H. exact (wqf_auth b (b_st b) s rem v W Ha I Hrem H).
Qed.

End Contain.
