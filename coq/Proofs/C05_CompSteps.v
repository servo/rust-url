(* Proofs/C05_CompSteps.v - the component clauses as an invariant of the mutators.
   comp_ok dbg u: the five clauses of Proofs/C05_Comp.v with the path clause in the form
   "a stored path that starts with '/' is free of D_PATH" - a statement about the stored path alone;
   on a well-formed record it gives the clause of the property text (comp_ok_components).
   CInv dbg u = wf_b u /\ host_text_ok u /\ comp_ok dbg u is preserved by every Url setter outside the
   known classes (step lemmas below; the frame and invariant parts are C06's).
   set_path_result: what Url::set_path does to the record outside the excluded classes - shared with the
   host-text and backslash invariants (C05_HostText, C05_PathSpSteps). *)
From RU Require Import Base.Prelude Base.Utf8 Model.AsciiSet Gen.Tables Model.PercentEncoding
  Model.HostT Model.UrlRecord Model.Parser Model.Setters Model.WF
  Proofs.ListN Proofs.C03_WF Proofs.C05_Enc Proofs.C05_Parser Proofs.C05_Setters Proofs.C05_Tail Proofs.C05_Frag Proofs.C05_Query
  Proofs.C05_Comp Proofs.C05_PathClean
  Proofs.C06_List Proofs.C06_WFI Proofs.C06_Tail Proofs.C06_Steps Proofs.C06_Suffix
  Proofs.C06_Front Proofs.C06_Atomic Proofs.C06_FragQuery Proofs.C06_Port Proofs.C06_Cred Proofs.C06_Scheme
  Proofs.C06_HostNone Proofs.C06_Host Proofs.C06_PathParser Proofs.C06_Path Proofs.C06_Segments Proofs.C06_PathNoAuth
  Proofs.C06_Main Proofs.C06_PathMore.

Definition comp_ok (dbg : bool) (u : url) : Prop :=
  (forall un, username dbg u = Some un -> free D_USERINFO un)
  /\ (forall pw, password dbg u = Some (Some pw) -> free D_USERINFO pw)
  /\ (forall p r, path u = Some p -> p = 47 :: r -> free D_PATH p)
  /\ (forall q, query dbg u = Some (Some q) -> free D_QUERY q)
  /\ (forall f, fragment dbg u = Some (Some f) -> free D_FRAGMENT f).

Definition CInv (dbg : bool) (u : url) : Prop := wfh u /\ comp_ok dbg u.

(* a path that is not opaque is empty or starts with '/' *)
Lemma hier_path_head u p : wf_b u = true -> cannot_be_a_base u = Some false -> path u = Some p ->
  p = [] \/ exists r, p = 47 :: r.
Proof.
  intros W C Hp. rewrite (cannot_be_a_base_eval u W) in C. inversion C as [C1]. apply negb_false_iff in C1.
  rewrite (path_eval u W) in Hp. inversion Hp as [Hp1]. unfold piece. cbn [pidx].
  change (match query_start u with Some q => q | None => match fragment_start u with Some f => f | None => nlen (ser u) end end)
    with (path_end u).
  destruct (wf_ps_le_path_end u W) as [B1 B2].
  assert (path_end u = path_start u \/ byte_eqb (ser u) (path_start u) 47 = true) as [E|E].
  { destruct (path_layouts u W) as [Ha|[(Ha & Hs & E)|[Ho|M]]].
    - apply (auth_path_head u W Ha).
    - right. rewrite E. exact Hs.
    - unfold is_opaque_b in Ho. rewrite C1 in Ho. discriminate.
    - right. apply (marker_heads u W M). }
  - left. rewrite E, N.sub_diag. reflexivity.
  - right. apply byte_eqb_nnth in E. pose proof (nnth_lt _ _ _ E).
    destruct (N.eq_dec (path_end u) (path_start u)) as [X|X].
    + (* empty path: the byte at path_start is '?' / '#', not '/' *)
      exfalso. pose proof (wf_qf_facts u W) as QF. pose proof (qf_q QF) as Q1. pose proof (qf_f QF) as Q2.
      unfold path_end in X. destruct (query_start u) as [q|].
      * destruct Q1 as (_ & Qb & _). apply byte_eqb_nnth in Qb. rewrite X in Qb. congruence.
      * destruct (fragment_start u) as [f|]; [|lia].
        destruct Q2 as (_ & Qb & _). apply byte_eqb_nnth in Qb. rewrite X in Qb. congruence.
    + rewrite (nskipn_cons_of_nnth _ _ _ E).
      replace (path_end u - path_start u) with (1 + (path_end u - path_start u - 1)) by lia.
      unfold nfirstn. rewrite N2Nat.inj_add. cbn [N.to_nat Pos.to_nat Pos.iter_op Nat.add firstn]. eexists. reflexivity.
Qed.

Theorem comp_ok_components dbg u : wf_b u = true -> comp_ok dbg u -> components_clean dbg u.
Proof.
  intros W (A & B & C & D & E). split; [exact A|]. split; [exact B|]. split; [|split; assumption].
  intros Hc p Hp. destruct (hier_path_head u p W Hc Hp) as [->|(r & Hr)]; [apply free_nil|].
  exact (C p r Hp Hr).
Qed.

(* every getter reads the same *)
Lemma comp_ok_same dbg u u' : username dbg u' = username dbg u -> password dbg u' = password dbg u ->
  path u' = path u -> query dbg u' = query dbg u -> fragment dbg u' = fragment dbg u ->
  comp_ok dbg u -> comp_ok dbg u'.
Proof.
  intros E1 E2 E3 E4 E5 (A & B & C & D & E). unfold comp_ok. rewrite E1, E2, E3, E4, E5. repeat split; assumption.
Qed.

(* texts the setters write *)
Lemma userinfo_enc_free t : free D_USERINFO (userinfo_enc t).
Proof.
  apply comp_clean_free. unfold userinfo_enc.
  apply pe_display_clean; [apply T_USERINFO_facts | apply T_USERINFO_facts | reflexivity].
Qed.

Lemma query_text_free u x : free D_QUERY (query_text u x).
Proof.
  unfold query_text, tnl_text.
  destruct (tnl_loop_adds _ _ (comp_clean_nil D_QUERY) (comp_clean_app _)
              (query_piece_clean (scheme_type_of (nfirstn (scheme_end u) (ser u)))) (input_new_trim_tnl x) [] []) as (t & E & Hc).
  rewrite E. apply comp_clean_free. exact Hc.
Qed.

Lemma fragment_text_free x : free D_FRAGMENT (tnl_text T_FRAGMENT x).
Proof.
  unfold tnl_text.
  destruct (tnl_loop_adds _ _ (comp_clean_nil D_FRAGMENT) (comp_clean_app _) fragment_piece_clean x [] []) as (t & E & Hc).
  rewrite E. apply comp_clean_free. exact Hc.
Qed.

(* the opaque-path space stripping: the stripped path is a prefix of the old one *)
Lemma drop_while_suffix f (l : list N) : exists y, l = y ++ drop_while f l.
Proof.
  induction l as [|c r IH]; [exists []; reflexivity|]. cbn [drop_while]. destruct (f c); [|exists []; reflexivity].
  destruct IH as (y & E). exists (c :: y). cbn [app]. f_equal. exact E.
Qed.

Lemma rstrip_prefix f l : exists t, l = rstrip f l ++ t.
Proof.
  unfold rstrip. destruct (drop_while_suffix f (rev l)) as (y & E). exists (rev y).
  rewrite <- rev_app_distr, <- E. symmetry. apply rev_involutive.
Qed.

Lemma path_clause_prefix (p p' t : list N) : p = p' ++ t ->
  (forall r, p = 47 :: r -> free D_PATH p) -> forall r, p' = 47 :: r -> free D_PATH p'.
Proof.
  intros E H r Hr. rewrite Hr in E. cbn [app] in E. apply (free_incl _ _ p); [|exact (H _ E)].
  rewrite E, Hr. intros x Hx. change (47 :: r ++ t) with ((47 :: r) ++ t). apply in_or_app. left. exact Hx.
Qed.

(* The shape of C06's theorems about the setters that return a status: the call succeeds, a status other than
   Ok leaves the record alone, Ok gives a post-condition.  So a property of u that the post-condition carries
   over holds of the result. *)
Lemma by_status (r : option (url * status)) (u : url) (post R : url -> Prop) :
  (exists u'' st', r = Some (u'', st') /\ (st' <> SOk -> u'' = u) /\ (st' = SOk -> post u'')) ->
  R u -> (forall u', post u' -> R u') -> forall u' st, r = Some (u', st) -> R u'.
Proof.
  intros (u'' & st' & E & Herr & Hok) Hu Hp u' st H. rewrite H in E. inversion E; subst u'' st'.
  destruct st; [apply Hp, Hok; reflexivity | rewrite Herr by discriminate; exact Hu ..].
Qed.

Section Steps.
Variable dbg : bool.
Variable hp hpo : list N -> result host.
Variable hd : host -> list N.

Lemma path_clause_strip (strip : bool) u u' :
  (if strip then exists p, path u = Some p /\ path u' = Some (rstrip (fun c => c =? 32) p) else path u' = path u) ->
  (forall p r, path u = Some p -> p = 47 :: r -> free D_PATH p) ->
  forall p r, path u' = Some p -> p = 47 :: r -> free D_PATH p.
Proof.
  intros H C p r Hp Hr. destruct strip.
  - destruct H as (p0 & E0 & E1). rewrite E1 in Hp. injection Hp as Ep. rewrite <- Ep in Hr. rewrite <- Ep.
    destruct (rstrip_prefix (fun c => c =? 32) p0) as (t & Et).
    exact (path_clause_prefix p0 _ t Et (fun r0 => C p0 r0 E0) r Hr).
  - rewrite H in Hp. exact (C p r Hp Hr).
Qed.

Theorem set_fragment_cinv u f u' : CInv dbg u -> set_fragment dbg u f = Some u' -> CInv dbg u'.
Proof.
  intros [[W HT] (A & B & C & D & E)] H. split; [exact (set_fragment_wfh dbg u f u' (conj W HT) H)|].
  destruct (set_fragment_ok dbg u f W) as (u'' & E' & W' & (_ & S2 & S3 & _) & _ & Q & F & P).
  rewrite H in E'. inversion E'; subst u''. unfold comp_ok. rewrite S2, S3, Q, F.
  split; [exact A|]. split; [exact B|]. split; [|split; [exact D|]].
  - destruct f; [rewrite P; exact C|].
    apply (path_clause_strip (opaque_strip_applies u) u u'); [|exact C].
    destruct (opaque_strip_applies u); exact P.
  - intros x Hx. destruct f as [t|]; inversion Hx; subst. apply fragment_text_free.
Qed.

Theorem set_query_cinv u q u' : CInv dbg u -> str_arg_ok q -> set_query dbg u q = Some u' -> CInv dbg u'.
Proof.
  intros [[W HT] (A & B & C & D & E)] Hq H. split; [exact (set_query_wfh dbg u q u' (conj W HT) Hq H)|].
  destruct (set_query_ok dbg u q W Hq) as (u'' & E' & W' & (_ & S2 & S3 & _) & _ & F & Q & P).
  rewrite H in E'. inversion E'; subst u''. unfold comp_ok. rewrite S2, S3, Q, F.
  split; [exact A|]. split; [exact B|]. split; [|split; [|exact E]].
  - destruct q; [rewrite P; exact C|].
    apply (path_clause_strip (is_opaque_b u && negb (has_some (fragment_start u))) u u'); [|exact C].
    destruct (is_opaque_b u && negb (has_some (fragment_start u))); exact P.
  - intros x Hx. destruct q as [t|]; inversion Hx; subst. apply query_text_free.
Qed.

(* port / password / username / scheme *)
Theorem set_port_cinv u p u' st : CInv dbg u -> port_arg_ok p -> set_port dbg u p = Some (u', st) -> CInv dbg u'.
Proof.
  intros [[W HT] K] Hp. apply (by_status _ u _ (CInv dbg) (set_port_ok dbg u p W HT Hp)); [exact (conj (conj W HT) K)|].
  intros x (W' & HT' & (_ & I2 & I3 & _) & (B1 & B2 & B3) & _).
  split; [split; assumption|]. exact (comp_ok_same dbg u x I2 I3 B1 B2 B3 K).
Qed.

Theorem set_password_cinv u pw u' st : CInv dbg u -> set_password dbg u pw = Some (u', st) -> CInv dbg u'.
Proof.
  intros [[W HT] K]. apply (by_status _ u _ (CInv dbg) (set_password_ok dbg u pw W HT)); [exact (conj (conj W HT) K)|].
  intros x (W' & HT' & _ & Un & _ & _ & (B1 & B2 & B3) & Pw).
  split; [split; assumption|]. destruct K as (A & B & C & D & E). unfold comp_ok. rewrite Un, B1, B2, B3, Pw.
  split; [exact A|]. split; [|split; [exact C | split; assumption]].
  intros y Hy. destruct pw as [[|c r]|]; inversion Hy; subst. apply userinfo_enc_free.
Qed.

Theorem set_username_cinv u un u' st : CInv dbg u -> set_username dbg u un = Some (u', st) -> CInv dbg u'.
Proof.
  intros [[W HT] K]. apply (by_status _ u _ (CInv dbg) (set_username_ok dbg u un W HT)); [exact (conj (conj W HT) K)|].
  intros x (W' & HT' & _ & Pw & _ & _ & (B1 & B2 & B3) & (cur & Ec & Un)).
  split; [split; assumption|]. destruct K as (A & B & C & D & E). unfold comp_ok. rewrite Pw, B1, B2, B3, Un.
  split; [|split; [exact B | split; [exact C | split; assumption]]].
  intros y Hy. inversion Hy; subst. destruct (list_eqb cur (utf8_encode un)); [exact (A cur Ec) | apply userinfo_enc_free].
Qed.

Theorem set_scheme_cinv u s u' st : CInv dbg u -> set_scheme dbg u s = Some (u', st) -> CInv dbg u'.
Proof.
  intros [[W HT] K]. apply (by_status _ u _ (CInv dbg) (set_scheme_ok dbg u s W HT)); [exact (conj (conj W HT) K)|].
  intros x (new & rem & _ & W' & HT' & _ & Un & Pw & _ & (B1 & B2 & B3) & _).
  split; [split; assumption|]. exact (comp_ok_same dbg u x Un Pw B1 B2 B3 K).
Qed.

(* set_host(None), outside F-C06-5 / F-C02-2 *)
Theorem set_host_none_cinv u u' st : CInv dbg u ->
  (has_host u = true -> path_empty_at_end u = false /\ path_starts_with_2slash u = false) ->
  set_host dbg hp hpo hd u None = Some (u', st) -> CInv dbg u'.
Proof.
  intros [[W HT] K] G H. destruct (set_host_none_ok dbg hp hpo hd u u' st W H) as (Herr & Hno & Hok).
  destruct st; [|rewrite Herr by discriminate; split; [split|]; assumption ..].
  destruct (has_host u) eqn:Hh; [|rewrite (Hno eq_refl eq_refl); split; [split|]; assumption].
  destruct (G eq_refl) as [G1 G2].
  destruct (Hok eq_refl eq_refl G1 G2) as (W' & HT' & _ & (B1 & B2 & B3) & Un & Pw & _).
  split; [split; assumption|]. destruct K as (A & B & C & D & E). unfold comp_ok. rewrite Un, Pw, B1, B2, B3.
  split; [intros x Hx; inversion Hx; apply free_nil|]. split; [intros x Hx; discriminate|].
  split; [exact C | split; assumption].
Qed.

Lemma host_set_post_cinv u u' h : comp_ok dbg u -> host_set_post dbg hd u u' h -> CInv dbg u'.
Proof.
  intros K (W' & HT' & _ & Un & Pw & _ & (B1 & B2 & B3) & _). split; [split; assumption|].
  exact (comp_ok_same dbg u u' Un Pw B1 B2 B3 K).
Qed.

(* set_ip_host, outside F-C02-4 (empty host with a port) and F-C03-5 (marker) *)
Theorem set_ip_host_cinv u h u' st : CInv dbg u -> host_disp_ok hd h ->
  (has_authority_b u = false -> path_start u = scheme_end u + 1) ->
  (has_authority_b u = true -> hi_of_host h = HI_None -> port u = None) ->
  set_ip_host dbg hd u h = Some (u', st) -> CInv dbg u'.
Proof.
  intros [[W HT] K] Hd X2 X1 H. destruct (set_ip_host_ok dbg hd u h u' st W Hd X2 H) as (Herr & Hok).
  destruct st; [|rewrite Herr by discriminate; split; [split|]; assumption ..].
  exact (host_set_post_cinv u u' h K (Hok eq_refl X1)).
Qed.

Lemma set_host_internal_hosti u h onp u' : set_host_internal dbg hd u h onp = Some u' -> hosti u' = hi_of_host h.
Proof.
  unfold set_host_internal. intros H. cbv zeta in H. ob H suffix Hsuf. ob H ha Hha. ob H a Ha. destruct a as [[s1 ue] hs].
  destruct onp as [np|].
  - destruct np as [p|]; cbv beta iota zeta in H; ob H ps Hps; ob H qs Hq; ob H fs Hf; inversion H; reflexivity.
  - cbv beta iota zeta in H. ob H ps Hps. ob H qs Hq. ob H fs Hf. inversion H. reflexivity.
Qed.

(* the mutators that parse a host text *)
(* a host returned by the host parser of the scheme class of u: Host::parse for a special scheme, Host::parse_opaque
   otherwise *)
Definition class_host (u : url) (h : host) : Prop :=
  if st_is_special (scheme_type_of (b_scheme u)) then exists s, hp s = Ok h else exists s, hpo s = Ok h.

Lemma class_host_origin u h : h = HDomain [] \/ class_host u h -> host_origin hp hpo h.
Proof.
  unfold class_host. intros [->|H]; [left; reflexivity|].
  destruct (st_is_special (scheme_type_of (b_scheme u))); [right; left | right; right]; exact H.
Qed.

(* set_host_internal without a port argument, outside F-C03-5 (marker) and F-C02-4 (the exclusion of an empty new host
   while a port is stored is stated on the RESULT) *)
Lemma shi_post u h u' : wf_b u = true -> host_disp_ok hd h ->
  byte_eqb (ser u) (scheme_end u + 1) 47 = true ->
  (has_authority_b u = false -> path_start u = scheme_end u + 1) ->
  (has_authority_b u = true -> hosti u' = HI_None -> port u = None) ->
  set_host_internal dbg hd u h None = Some u' -> host_set_post dbg hd u u' h.
Proof.
  intros W Hd Hsl X2 X1 E. pose proof (set_host_internal_hosti u h None u' E) as Hi.
  apply (set_host_internal_post dbg hd u h u' W Hd); [|exact X2 | exact Hsl | exact E].
  intros Ha Hn. apply X1; [exact Ha | rewrite Hi; exact Hn].
Qed.

(* Url::set_host(Some _): nothing happens, or a host of the scheme class is written *)
Lemma set_host_some_result u x u' st : wf_b u = true -> (forall h, class_host u h -> host_disp_ok hd h) ->
  (has_authority_b u = false -> path_start u = scheme_end u + 1) ->
  (has_authority_b u = true -> hosti u' = HI_None -> port u = None) ->
  set_host dbg hp hpo hd u (Some x) = Some (u', st) ->
  u' = u \/ exists h, class_host u h /\ host_set_post dbg hd u u' h.
Proof.
  intros W Hd X2 X1 H.
  destruct st; [|left; apply (set_host_atomic dbg hp hpo hd u (Some x) u' _ H); discriminate ..].
  right. unfold set_host in H. rewrite (cannot_be_a_base_eval u W) in H. cbn [bindo] in H.
  destruct (byte_eqb (ser u) (scheme_end u + 1) 47) eqn:Hsl; cbn [negb] in H; [|discriminate].
  rewrite (u_scheme_type_eval u W) in H. cbn [bindo] in H.
  match type of H with (if ?c then _ else _) = _ => destruct c end; [discriminate|].
  match type of H with (match ?sub with Some _ => _ | None => _ end) = _ => destruct sub as [hsub|] end; [|discriminate].
  match type of H with (match ?r with Ok _ => _ | Err _ => _ end) = _ => destruct r as [host|e] eqn:Er end; [|discriminate].
  assert (class_host u host) as Ho.
  { unfold class_host, b_scheme.
    destruct (st_is_special (scheme_type_of (nfirstn (scheme_end u) (ser u)))); eexists; exact Er. }
  destruct (set_host_internal dbg hd u host None) as [u0|] eqn:E; cbn [bindo] in H; [|discriminate].
  inversion H; subst u0. exists host. split; [exact Ho|]. exact (shi_post u host u' W (Hd host Ho) Hsl X2 X1 E).
Qed.

Theorem set_host_some_cinv u x u' st : CInv dbg u -> (forall h, host_disp_ok hd h) ->
  (has_authority_b u = false -> path_start u = scheme_end u + 1) ->
  (has_authority_b u = true -> hosti u' = HI_None -> port u = None) ->
  set_host dbg hp hpo hd u (Some x) = Some (u', st) -> CInv dbg u'.
Proof.
  intros K Hd X2 X1 H. pose proof K as [[W _] Kc].
  destruct (set_host_some_result u x u' st W (fun h _ => Hd h) X2 X1 H) as [->|(h & _ & Hp)]; [exact K|].
  exact (host_set_post_cinv u u' h Kc Hp).
Qed.

End Steps.

Section PathSteps.
Variable dbg : bool.
(* the exclusions, on the record before and after: F-C02-8 (no marker, result starts with "//"),
   F-C03-5 (marker, result does not start with "//"); nothing for an authority or an opaque path
   (since the fix of F-C06-6, commit 0cfc9d8, an opaque path stays opaque) *)
Definition path_gate (u u' : url) : Prop :=
  if has_authority_b u then True
  else if is_opaque_b u then True
  else path_starts_with_2slash u' = (path_start u =? scheme_end u + 3).

Lemma pq_new_path dbg0 st s0 p P hh rem :
  parse_path_start dbg0 CSetter st true s0 p = POk (s0 ++ P, hh, rem) -> free D_PATH P.
Proof.
  intros H. destruct (parse_path_start_clean _ _ _ _ _ _ _ _ _ H) as (P' & E & HP).
  apply app_inv_head in E. subst P'. intros d Hd. exact (pq_free P HP d Hd).
Qed.

Lemma path_result_cinv u u' P : comp_ok dbg u -> path_result dbg u u' P ->
  (forall r, P = 47 :: r -> free D_PATH P) -> CInv dbg u'.
Proof.
  intros (A & B & C & D & E) (W' & HT' & (_ & S2 & S3 & _) & Q & F & Pp) HP. split; [split; assumption|].
  unfold comp_ok. rewrite S2, S3, Q, F, Pp. split; [exact A|]. split; [exact B|]. split; [|split; assumption].
  intros p r Hp Hr. injection Hp as Ep. rewrite <- Ep in Hr. rewrite <- Ep. exact (HP r Hr).
Qed.

(* set_path outside the excluded classes: the record differs from u in the path alone, and the new path is
   what the path states write for the argument behind the old front - or the path is opaque and stays so *)
Lemma set_path_result u p u' : wfh u -> usv_list p -> auth_end_ok u ->
  (is_opaque_b u = true -> forallb no_qh p = true) -> path_gate u u' ->
  set_path dbg u p = Some u' ->
  exists P, path_result dbg u u' P
    /\ ((is_opaque_b u = true /\ is_opaque_b u' = true)
        \/ exists hh rem, parse_path_start dbg CSetter (scheme_type_of (b_scheme u)) true
                            (nfirstn (path_start u) (ser u)) p
                          = POk (nfirstn (path_start u) (ser u) ++ P, hh, rem)).
Proof.
  intros [W HT] Hp Hx Hq G H. unfold path_gate in G.
  destruct (path_layouts u W) as [Ha|[NA|[Ho|M]]].
  - (* authority *)
    destruct (set_path_ok dbg u p u' W HT Ha Hp Hx H) as (W' & HT' & SF & Q & F & (P & Pp & _ & Epp)).
    exists P. split; [exact (conj W' (conj HT' (conj SF (conj Q (conj F Pp))))) | right; exact Epp].
  - (* '/'-led path, no authority, no marker *)
    pose proof NA as (Ha & Hsl & Hnm). rewrite Ha in G.
    assert (is_opaque_b u = false) as Ho by (unfold is_opaque_b; rewrite Hsl; reflexivity). rewrite Ho in G.
    replace (path_start u =? scheme_end u + 3) with false in G by lia.
    destruct (set_path_eval dbg u p u' W Hsl Hp Hx H) as (P & hh & rem & -> & HP & Epp).
    exists P. split; [exact (proj1 (plain_result dbg u P W Ha Hnm (proj1 HP)) G) | right; exists hh, rem; exact Epp].
  - (* opaque path *)
    destruct (set_path_opaque_ok dbg u p u' W Ho Hp (Hq Ho) H) as (W' & HT' & SF & Q & F & Ho' & (P & Pp & _)).
    exists P. split; [exact (conj W' (conj HT' (conj SF (conj Q (conj F Pp))))) | left; exact (conj Ho Ho')].
  - (* marker *)
    pose proof M as [Ha Em]. destruct (marker_heads u W M) as (Hsl & _ & _). rewrite Ha in G.
    assert (is_opaque_b u = false) as Ho by (unfold is_opaque_b; rewrite Hsl; reflexivity). rewrite Ho in G.
    replace (path_start u =? scheme_end u + 3) with true in G by lia.
    destruct (set_path_eval dbg u p u' W Hsl Hp Hx H) as (P & hh & rem & -> & HP & Epp).
    exists P. split; [exact (proj1 (marker_result dbg u P W Ha Em (proj1 HP)) G) | right; exists hh, rem; exact Epp].
Qed.

(* an opaque path does not start with '/' *)
Lemma opaque_path_head u r : wf_b u = true -> is_opaque_b u = true -> path u <> Some (47 :: r).
Proof.
  intros W Ho Pp. unfold is_opaque_b in Ho. apply negb_true_iff in Ho.
  destruct (opaque_path_start u W Ho) as [Ha Eps]. rewrite (path_eval u W) in Pp. inversion Pp as [Pp1].
  unfold piece in Pp1. cbn [pidx] in Pp1. unfold nfirstn in Pp1.
  assert (nnth (nskipn (path_start u) (ser u)) 0 = Some 47) as Hn.
  { destruct (nskipn (path_start u) (ser u)) as [|c t]; [rewrite firstn_nil in Pp1; discriminate|].
    destruct (N.to_nat _); [discriminate|]. cbn [firstn] in Pp1. inversion Pp1. reflexivity. }
  rewrite nnth_nskipn, N.add_0_r, Eps in Hn. unfold byte_eqb in Ho. rewrite Hn in Ho. discriminate.
Qed.

Theorem set_path_cinv u p u' : CInv dbg u -> usv_list p -> auth_end_ok u ->
  (is_opaque_b u = true -> forallb no_qh p = true) -> path_gate u u' ->
  set_path dbg u p = Some u' -> CInv dbg u'.
Proof.
  intros [WH K] Hp Hx Hq G H. destruct (set_path_result u p u' WH Hp Hx Hq G H) as (P & R & [[_ Ho']|(hh & rem & Epp)]).
  - (* stays opaque, so the path clause says nothing *)
    apply (path_result_cinv u u' P K R). intros r ->. exfalso.
    destruct R as (W' & _ & _ & _ & _ & Pp). exact (opaque_path_head u' r W' Ho' Pp).
  - apply (path_result_cinv u u' P K R). intros r _. exact (pq_new_path _ _ _ _ _ _ _ Epp).
Qed.

End PathSteps.
