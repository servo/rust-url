(* Proofs/C13_Small.v - decode (encode s) = s for every s of at most 3855 scalars, without the hypothesis
   ~ Known_C13 s: along the encoder's walk
   di + delta <= (m - 128) * (h + 1) + pos <= 1113983 * 3855 + 3854 < 2^32 (1113983 = 0x10FFFF - 128), so the
   walk w_outer of C13_RtB succeeds (w_outer_small) and C13_DecEnc.dec_enc_of_walk applies. *)
From RU Require Import Base.Prelude Base.U32_c13 Model.Punycode Spec.Rfc3492
  Proofs.C13_Enc Proofs.C13_Rt Proofs.C13_RtB Proofs.C13_DecEnc.

Lemma w_inner_small L l : forall m d h di pos,
  128 <= m <= 1114111 -> L <= 3855 ->
  di + d <= (m - 128) * (h + 1) + pos ->
  pos + cnt (fun c => c <? m) l <= h ->
  h + cnt (fun c => c =? m) l <= L ->
  exists d' h' di', w_inner l m d h di pos = Some (d', h', di')
    /\ di' + d' <= (m - 128) * (h' + 1) + h' /\ h' = h + cnt (fun c => c =? m) l.
Proof.
  induction l as [|c l IH]; intros m d h di pos Hm HL HJ HP HQ.
  - cbn [w_inner]. cbn [cnt] in *. exists d, h, di. split; [reflexivity|]. split; lia.
  - rewrite w_inner_cons. cbn [cnt] in HP, HQ.
    destruct (c =? m) eqn:Ecm.
    + apply N.eqb_eq in Ecm. subst c. replace (m <? m) with false in * by lia.
      assert (HA : (m - 128) * (h + 1) <= 1113983 * 3855) by (apply N.mul_le_mono; lia).
      replace (di + d <=? U32_MAX) with true by (unfold U32_MAX; lia).
      pose proof (N.le_0_l ((m - 128) * (h + 1 + 1))) as H0.
      destruct (IH m 0 (h + 1) (pos + 1) (pos + 1) Hm HL) as [d' [h' [di' [E1 [E2 E3]]]]]; [lia|lia|lia|].
      exists d', h', di'. split; [exact E1|]. split; [exact E2|]. cbn [cnt]. rewrite N.eqb_refl. lia.
    + destruct (c <? m) eqn:Elt.
      * destruct (IH m (d + 1) h di (pos + 1) Hm HL) as [d' [h' [di' [E1 [E2 E3]]]]]; [lia|lia|lia|].
        exists d', h', di'. split; [exact E1|]. split; [exact E2|]. cbn [cnt]. rewrite Ecm. lia.
      * destruct (IH m d h di pos Hm HL) as [d' [h' [di' [E1 [E2 E3]]]]]; [lia|lia|lia|].
        exists d', h', di'. split; [exact E1|]. split; [exact E2|]. cbn [cnt]. rewrite Ecm. lia.
Qed.

Lemma cnt_lt_min l n m : n <= m -> (forall c, In c l -> n <= c -> m <= c) ->
  cnt (fun c => c <? n) l = cnt (fun c => c <? m) l.
Proof.
  intros Hnm H. rewrite !cnt_filter. exact (f_equal len (filter_lt_min l n m Hnm H)).
Qed.

Lemma w_outer_small input (HL : len input <= 3855) (Husv : Forall (fun c => c <= 1114111) input) fuel :
  forall n d h di, 128 <= n -> h = cnt (fun c => c <? n) input -> di + d <= (n - 128) * (h + 1) ->
  w_outer fuel input (len input) n d h di = true.
Proof.
  induction fuel as [|f IH]; intros n d h di Hn Hh HJ.
  - cbn [w_outer]. destruct (h <? len input); reflexivity.
  - rewrite w_outer_S. destruct (h <? len input) eqn:E; [|reflexivity].
    destruct (min_exists input n h Hh ltac:(lia)) as [m Em]. rewrite Em.
    apply s_min_ge_some in Em. destruct Em as [Hin [Hle Hmin]].
    assert (Hm : m <= 1114111) by (rewrite Forall_forall in Husv; exact (Husv m Hin)).
    pose proof (cnt_lt_step input n m Hle Hmin) as Hstep.
    pose proof (cnt_le (fun c => c <? m + 1) input) as Hcl.
    assert (Hmul : (m - 128) * (h + 1) = (n - 128) * (h + 1) + (m - n) * (h + 1)).
    { rewrite <- N.mul_add_distr_r. f_equal. lia. }
    destruct (w_inner_small (len input) input m (d + (m - n) * (h + 1)) h di 0)
      as [d' [h' [di' [E1 [E2 E3]]]]]; [lia|exact HL|lia| |lia|].
    { rewrite <- (cnt_lt_min input n m Hle Hmin). lia. }
    rewrite E1. apply IH; [lia|lia|].
    replace (m + 1 - 128) with ((m - 128) + 1) by lia. rewrite N.mul_add_distr_r. lia.
Qed.

(* no exclusion up to 3855 scalars (the witness of F-C13-1 has 3857, C13_Known.witness_c13_1_len) *)
Theorem dec_enc_small_3855 : forall cfg s p, usv_list s -> (length s <= 3855)%nat ->
  encode cfg s = Ok p -> decode cfg p = Ok s.
Proof.
  intros cfg s p Hu Hl He. apply (dec_enc_of_walk cfg s p Hu He).
  apply w_outer_small.
  - unfold len. lia.
  - unfold usv_list in Hu. eapply Forall_impl; [|exact Hu]. exact usv_le.
  - unfold s_initial_n. lia.
  - reflexivity.
  - rewrite N.add_0_l. apply N.le_0_l.
Qed.

(* the instance for length s <= 3854 *)
Theorem dec_enc_small : forall cfg s p, usv_list s -> (length s <= 3854)%nat ->
  encode cfg s = Ok p -> decode cfg p = Ok s.
Proof. intros cfg s p Hu Hl. apply dec_enc_small_3855; [exact Hu|lia]. Qed.
