(* Proofs/C02_Canon.v - the union of the four canonical forms (classes (i)-(iv) of DESIGN B.5) as one
   predicate Canon; every Canon record is a fixpoint of re-parsing; every parse result without base of a
   non-file scheme is Canon; set_fragment and set_query keep Canon (L2 for the two tail setters). *)
From Coq Require Import String.
From RU Require Import Base.Prelude Base.Utf8 Base.Utf8Facts Model.AsciiSet Gen.Tables
  Model.PercentEncoding Model.HostT Model.UrlRecord Model.Parser Model.Setters Model.WF
  Proofs.ListN Proofs.C14_Set Proofs.C14_Enc Proofs.C14_Views Proofs.C02_Enc Proofs.C02_Parts
  Proofs.C02_Opaque Proofs.C02_Path Proofs.C02_PathL1 Proofs.C02_Reach Proofs.C16_RT Proofs.C02_AuthParts
  Proofs.C02_Auth Proofs.C02_AuthWf Proofs.C02_PathSp Proofs.C02_AuthSp Proofs.C02_AuthMain Proofs.C02_SetQF.
Open Scope N_scope.
Open Scope list_scope.

(* bounds from the length of the serialization *)
Lemma qf_bounds pre q f M : nlen (pre ++ qf_text q f) <= M ->
  opt_le (qf_qs (nlen pre) q) M /\ opt_le (qf_fs (nlen pre) q f) M.
Proof.
  rewrite nlen_app. unfold qf_text. rewrite nlen_app. intros H. split.
  - destruct q; cbn [qf_qs opt_le]; [lia | exact I].
  - destruct f as [y|]; cbn [qf_fs opt_le]; [lia | exact I].
Qed.

(* replacing query and fragment inside each canonical form *)
Lemma opaque_ok_qf sch P q0 f0 q f : opaque_ok sch P q0 f0 ->
  opt_clean T_QUERY q -> opt_clean T_FRAGMENT f -> (q = None -> f = None -> first_ok (rev P)) ->
  nlen (opaque_ser sch P q f) <= U32_MAX_P -> opaque_ok sch P q f.
Proof.
  intros K Hq Hf Hl Hb. destruct K. destruct (qf_bounds _ _ _ _ Hb) as [B1 B2]. constructor; assumption.
Qed.

Lemma noauth_ok_qf sch segs last q0 f0 q f : noauth_ok sch segs last q0 f0 ->
  opt_clean T_QUERY q -> opt_clean T_FRAGMENT f ->
  nlen (noauth_ser sch (path_text segs last) q f) <= U32_MAX_P -> noauth_ok sch segs last q f.
Proof.
  intros K Hq Hf Hb. destruct K. destruct (qf_bounds _ _ _ _ Hb) as [B1 B2]. constructor; assumption.
Qed.

Lemma auth_ok_qf hp hpo hd st sch ui h pt p q0 f0 q f : auth_ok hp hpo hd st sch ui h pt p q0 f0 ->
  opt_clean (query_set st) q -> opt_clean T_FRAGMENT f ->
  nlen (auth_ser hd sch ui h pt p q f) <= U32_MAX_P -> auth_ok hp hpo hd st sch ui h pt p q f.
Proof.
  intros K Hq Hf Hb. destruct K. destruct (qf_bounds _ _ _ _ Hb) as [B1 B2]. constructor; assumption.
Qed.

Lemma opaque_url_qf sch P q f :
  opaque_url sch P q f
  = qf_url (opaque_pre sch P) (nlen sch) (nlen (sch ++ [58])) (nlen (sch ++ [58])) (nlen (sch ++ [58])) HI_None None
           (nlen (sch ++ [58])) q f.
Proof. reflexivity. Qed.

Lemma noauth_url_qf sch T q f :
  noauth_url sch T q f
  = qf_url (noauth_pre sch T) (nlen sch) (nlen (sch ++ [58])) (nlen (sch ++ [58])) (nlen (sch ++ [58])) HI_None None
           (nlen (sch ++ [58]) + nlen (marker_of T)) q f.
Proof. reflexivity. Qed.

Lemma auth_url_qf hd sch ui h pt p q f :
  auth_url hd sch ui h pt p q f
  = qf_url (auth_pre hd sch ui h pt p) (nlen sch) (nlen sch + 3 + ui_ulen ui) (nlen sch + 3 + nlen (ui_text ui))
           (nlen sch + 3 + nlen (ui_text ui) + nlen (hd h)) (hi_of_host h) pt (nlen (auth_front hd sch ui h pt)) q f.
Proof. reflexivity. Qed.

Lemma opaque_pre_sch sch P : nfirstn (nlen sch) (opaque_pre sch P) = sch /\ nlen sch <= nlen (opaque_pre sch P).
Proof. unfold opaque_pre. rewrite <- app_assoc. split; [apply nfirstn_app_len | rewrite nlen_app; lia]. Qed.

Lemma noauth_pre_sch sch T : nfirstn (nlen sch) (noauth_pre sch T) = sch /\ nlen sch <= nlen (noauth_pre sch T).
Proof. unfold noauth_pre. rewrite <- app_assoc. split; [apply nfirstn_app_len | rewrite nlen_app; lia]. Qed.

Lemma auth_pre_sch hd sch ui h pt p :
  nfirstn (nlen sch) (auth_pre hd sch ui h pt p) = sch /\ nlen sch <= nlen (auth_pre hd sch ui h pt p).
Proof.
  unfold auth_pre. split; [apply front_sch|]. rewrite nlen_app, front_len. lia.
Qed.

(* trailing spaces of an opaque path *)
Lemma drop_while_app_stop (g : N -> bool) x c y : g c = false -> drop_while g (x ++ c :: y) = drop_while g x ++ c :: y.
Proof.
  intros Hc. induction x as [|a x IH]; cbn [app drop_while]; [rewrite Hc; reflexivity|].
  destruct (g a); [exact IH | reflexivity].
Qed.

Lemma rstrip32_opaque_pre sch P : rstrip32 (opaque_pre sch P) = opaque_pre sch (rstrip32 P).
Proof.
  unfold rstrip32, opaque_pre. rewrite (rev_app_distr (sch ++ [58]) P). rewrite (rev_app_distr sch [58]). cbn [rev app].
  rewrite drop_while_app_stop by reflexivity. rewrite rev_app_distr. cbn [rev]. rewrite rev_involutive. reflexivity.
Qed.

Lemma rstrip32_prefix P : exists s, P = rstrip32 P ++ s.
Proof.
  unfold rstrip32. destruct (drop_while_spec (fun c => c =? 32) (rev P)) as (a & Ha & _).
  exists (rev a). rewrite <- rev_app_distr, <- Ha. symmetry. apply rev_involutive.
Qed.

Lemma kept_CONTROLS_ge32 : kept_sat T_CONTROLS (fun c => 32 <=? c) = true. Proof. vm_compute. reflexivity. Qed.

Lemma rstrip32_ok sch P q f : opaque_ok sch P q f -> opaque_ok sch (rstrip32 P) None None.
Proof.
  intros K. destruct K as [Ksch Kns KP KPq KPh Kq Kf Klast Kb1 Kbq Kbf]. destruct (rstrip32_prefix P) as [s Es].
  assert (clean T_CONTROLS (rstrip32 P) = true) as C1.
  { unfold clean in *. rewrite Es in KP. rewrite forallb_app in KP. apply andb_true_iff in KP. tauto. }
  constructor; try assumption; try exact I.
  - rewrite Es in KPq. rewrite forallb_app in KPq. apply andb_true_iff in KPq. tauto.
  - destruct (rstrip32 P) as [|c r] eqn:E; [reflexivity|]. rewrite Es in KPh. cbn [app starts_with] in *. exact KPh.
  - intros _ _. unfold rstrip32 in *. rewrite rev_involutive.
    destruct (drop_while_spec (fun c => c =? 32) (rev P)) as (a & _ & _ & Hhd).
    destruct (drop_while (fun c => c =? 32) (rev P)) as [|c r] eqn:E; [exact I|]. cbn [first_ok].
    pose proof (clean_forallb _ _ _ kept_CONTROLS_ge32 C1) as G. cbn [rev] in G. rewrite forallb_app in G.
    apply andb_true_iff in G. destruct G as [_ G]. cbn [forallb] in G. unfold is_c0_or_space. lia.
Qed.

Section Canon.
Variable dbg : bool.
Variable hp hpo : list N -> result host.
Variable hd : host -> list N.
Hypothesis HRT : HostRT hp hpo hd.

(* the union of the four canonical forms *)
Inductive Canon : url -> Prop :=
| Canon_opaque sch P q f : opaque_ok sch P q f -> Canon (opaque_url sch P q f)
| Canon_noauth sch segs last q f : noauth_ok sch segs last q f -> Canon (noauth_url sch (path_text segs last) q f)
| Canon_auth sch ui h pt p q f : auth_ok hp hpo hd STNotSpecial sch ui h pt p q f -> Canon (auth_url hd sch ui h pt p q f)
| Canon_special sch ui h pt p q f : auth_ok hp hpo hd STSpecialNotFile sch ui h pt p q f -> pth_ok_sp p ->
    Canon (auth_url hd sch ui h pt p q f).

Theorem Canon_fixpoint u : Canon u ->
  Fixpoint_of_reparse dbg hp hpo hd u /\ wf_b u = true /\ ascii (ser u).
Proof.
  intros [sch P q f K | sch segs last q f K | sch ui h pt p q f K | sch ui h pt p q f K Kp].
  - pose proof (opaque_ser_ascii sch P q f K) as A.
    split; [|split; [exact (opaque_url_wf sch P q f K) | exact A]].
    unfold Fixpoint_of_reparse, reparse. cbn [ser opaque_url]. rewrite utf8_lossy_ascii by exact A.
    exact (reparse_opaque_form dbg hp hpo hd None sch P q f K).
  - destruct (noauth_url_wf sch segs last q f K) as (W & _ & A).
    split; [|split; [exact W | exact A]].
    unfold Fixpoint_of_reparse, reparse. cbn [ser noauth_url]. rewrite utf8_lossy_ascii by exact A.
    exact (reparse_noauth_form dbg hp hpo hd None sch segs last q f K).
  - split; [apply (L3_auth dbg hp hpo hd HRT); exists sch, ui, h, pt, p, q, f; split; [exact K | reflexivity]|].
    split; [exact (proj1 (auth_url_wf hp hpo hd HRT _ _ _ _ _ _ _ _ K))|].
    apply okc_ascii. exact (auth_ser_okc hp hpo hd HRT _ _ _ _ _ _ _ _ K).
  - split; [apply (L3_special dbg hp hpo hd HRT); exists sch, ui, h, pt, p, q, f; split; [exact K | split; [exact Kp | reflexivity]]|].
    split; [exact (proj1 (auth_url_wf hp hpo hd HRT _ _ _ _ _ _ _ _ K))|].
    apply okc_ascii. exact (auth_ser_okc hp hpo hd HRT _ _ _ _ _ _ _ _ K).
Qed.

(* every parse result without base of a non-file scheme is Canon (special schemes: no encoding override) *)
Theorem parse_Canon ovr input u : host_above hp hpo hd -> usv_list input -> nonfile_input input = true ->
  (ovr = None \/ special_input input = false) ->
  parse_url dbg hp hpo hd ovr None input = POk u -> Canon u.
Proof.
  intros HAb Hu Hc Hov Hp. unfold nonfile_input in Hc.
  destruct (parse_scheme CUrlParser (input_new_trim_c0 input)) as [[sch rem]|] eqn:Hs; [|discriminate].
  destruct (scheme_type_of sch) eqn:Hst; [discriminate| |].
  - assert (special_input input = true) as Hsi by (unfold special_input; rewrite Hs, Hst; reflexivity).
    destruct Hov as [-> | Hov]; [|congruence].
    destruct (parse_special_out dbg hp hpo hd HRT HAb input sch rem u Hu Hs Hst Hp) as (ui & h & pt & p & q & f & K & Kp & ->).
    exact (Canon_special sch ui h pt p q f K Kp).
  - destruct (inp_split_prefix_char 47 rem) as [rem'|] eqn:E47.
    + destruct (inp_split_prefix_str s_ss rem) as [rem''|] eqn:Ess.
      * destruct (parse_auth_out dbg hp hpo hd HRT HAb ovr input sch rem rem'' u Hu Hs Hst Ess Hp) as (ui & h & pt & p & q & f & K & ->).
        exact (Canon_auth sch ui h pt p q f K).
      * destruct (parse_noauth_out dbg hp hpo hd ovr input sch rem rem' u Hu Hs Hst Ess E47 Hp) as (segs & last & q & f & K & ->).
        exact (Canon_noauth sch segs last q f K).
    + destruct (parse_opaque_out dbg hp hpo hd ovr input sch rem u Hu Hs Hst E47 Hp) as (P & q & f & K & ->).
      exact (Canon_opaque sch P q f K).
Qed.

(* the two classes with authority as one *)
Lemma Canon_auth_st st sch ui h pt p q f : st_is_file st = false ->
  auth_ok hp hpo hd st sch ui h pt p q f -> (st = STSpecialNotFile -> pth_ok_sp p) -> Canon (auth_url hd sch ui h pt p q f).
Proof.
  intros Hnf K Kp. destruct st; [discriminate | exact (Canon_special sch ui h pt p q f K (Kp eq_refl)) | exact (Canon_auth sch ui h pt p q f K)].
Qed.

(* L2: set_fragment *)
Lemma set_fragment_authority st sch ui h pt p q f fr u' : st_is_file st = false ->
  auth_ok hp hpo hd st sch ui h pt p q f -> (st = STSpecialNotFile -> pth_ok_sp p) -> usv_opt fr ->
  set_fragment dbg (auth_url hd sch ui h pt p q f) fr = Some u' -> nlen (ser u') <= U32_MAX_P -> Canon u'.
Proof.
  intros Hnf K Kp Hfr. rewrite auth_url_qf. destruct fr as [x|].
  - rewrite set_fragment_qf_some by exact Hfr. intros E Hb. inversion E; subst u'. rewrite <- auth_url_qf in *.
    apply (Canon_auth_st st); [exact Hnf | | exact Kp]. apply (auth_ok_qf hp hpo hd st sch ui h pt p q f); try assumption.
    + exact (ak_q _ _ _ _ _ _ _ _ _ _ _ K).
    + exact (frag_of_clean x Hfr).
  - assert (auth_ok hp hpo hd st sch ui h pt p q None) as K0 by (destruct K; constructor; try assumption; exact I).
    rewrite (set_fragment_qf_none dbg _ _ _ _ _ _ _ _ q f false)
      by (rewrite <- auth_url_qf; exact (proj2 (auth_url_wf hp hpo hd HRT _ _ _ _ _ _ _ _ K0))).
    intros E Hb. inversion E; subst u'. cbn [andb]. rewrite <- auth_url_qf. exact (Canon_auth_st st _ _ _ _ _ _ _ Hnf K0 Kp).
Qed.

Theorem set_fragment_Canon u fr u' : Canon u -> usv_opt fr ->
  set_fragment dbg u fr = Some u' -> nlen (ser u') <= U32_MAX_P -> Canon u'.
Proof.
  intros C Hfr. destruct C as [sch P q f K | sch segs last q f K | sch ui h pt p q f K | sch ui h pt p q f K Kp].
  - (* opaque path *)
    rewrite opaque_url_qf. destruct fr as [x|].
    + rewrite set_fragment_qf_some by exact Hfr. intros E Hb. inversion E; subst u'. rewrite <- opaque_url_qf in *.
      apply Canon_opaque. apply (opaque_ok_qf sch P q f); try assumption.
      * exact (ok_q _ _ _ _ K).
      * exact (frag_of_clean x Hfr).
      * intros _ E0. discriminate E0.
    + rewrite (set_fragment_qf_none dbg _ _ _ _ _ _ _ _ q f true)
        by (rewrite <- opaque_url_qf; apply opaque_cbb_gen; exact (ok_Ph _ _ _ _ K)).
      intros E Hb. inversion E; subst u'. clear E. destruct q as [y|]; cbn [andb] in *.
      * rewrite <- opaque_url_qf in *. apply Canon_opaque. apply (opaque_ok_qf sch P (Some y) f); try assumption.
        -- exact (ok_q _ _ _ _ K).
        -- intros E0. discriminate E0.
      * rewrite rstrip32_opaque_pre. exact (Canon_opaque sch (rstrip32 P) None None (rstrip32_ok sch P None f K)).
  - (* no authority *)
    rewrite noauth_url_qf. destruct fr as [x|].
    + rewrite set_fragment_qf_some by exact Hfr. intros E Hb. inversion E; subst u'. rewrite <- noauth_url_qf in *.
      apply Canon_noauth. apply (noauth_ok_qf sch segs last q f); try assumption.
      * exact (nk_q _ _ _ _ _ K).
      * exact (frag_of_clean x Hfr).
    + assert (noauth_ok sch segs last q None) as K0 by (destruct K; constructor; try assumption; exact I).
      rewrite (set_fragment_qf_none dbg _ _ _ _ _ _ _ _ q f false)
        by (rewrite <- noauth_url_qf; exact (proj1 (proj2 (noauth_url_wf sch segs last q None K0)))).
      intros E Hb. inversion E; subst u'. cbn [andb]. rewrite <- noauth_url_qf. exact (Canon_noauth sch segs last q None K0).
  - exact (set_fragment_authority STNotSpecial sch ui h pt p q f fr u' eq_refl K ltac:(discriminate) Hfr).
  - exact (set_fragment_authority STSpecialNotFile sch ui h pt p q f fr u' eq_refl K (fun _ => Kp) Hfr).
Qed.

(* L2: set_query *)
Lemma set_query_authority st sch ui h pt p q f qr u' : st_is_file st = false ->
  auth_ok hp hpo hd st sch ui h pt p q f -> (st = STSpecialNotFile -> pth_ok_sp p) -> usv_opt qr ->
  set_query dbg (auth_url hd sch ui h pt p q f) qr = Some u' -> nlen (ser u') <= U32_MAX_P -> Canon u'.
Proof.
  intros Hnf K Kp Hqr. rewrite auth_url_qf. destruct (auth_pre_sch hd sch ui h pt p) as [S1 S2]. destruct qr as [x|].
  - rewrite (set_query_qf_some dbg _ _ _ _ _ _ _ _ sch S1 S2 q f x Hqr).
    intros E Hb. inversion E; subst u'. rewrite <- auth_url_qf in *.
    apply (Canon_auth_st st); [exact Hnf | | exact Kp]. apply (auth_ok_qf hp hpo hd st sch ui h pt p q f); try assumption.
    + cbn [opt_clean]. rewrite (ak_st _ _ _ _ _ _ _ _ _ _ _ K). exact (squery_of_clean st x Hqr).
    + exact (ak_f _ _ _ _ _ _ _ _ _ _ _ K).
  - assert (auth_ok hp hpo hd st sch ui h pt p None None) as K0 by (destruct K; constructor; try assumption; exact I).
    rewrite (set_query_qf_none dbg _ _ _ _ _ _ _ _ q f false)
      by (rewrite <- auth_url_qf; exact (proj2 (auth_url_wf hp hpo hd HRT _ _ _ _ _ _ _ _ K0))).
    intros E Hb. inversion E; subst u'. cbn [andb] in *. rewrite <- auth_url_qf in *.
    apply (Canon_auth_st st); [exact Hnf | | exact Kp].
    apply (auth_ok_qf hp hpo hd st sch ui h pt p q f); try assumption; try exact I; exact (ak_f _ _ _ _ _ _ _ _ _ _ _ K).
Qed.

Theorem set_query_Canon u qr u' : Canon u -> usv_opt qr ->
  set_query dbg u qr = Some u' -> nlen (ser u') <= U32_MAX_P -> Canon u'.
Proof.
  intros C Hqr. destruct C as [sch P q f K | sch segs last q f K | sch ui h pt p q f K | sch ui h pt p q f K Kp].
  - (* opaque path *)
    rewrite opaque_url_qf. destruct (opaque_pre_sch sch P) as [S1 S2]. destruct qr as [x|].
    + rewrite (set_query_qf_some dbg _ _ _ _ _ _ _ _ sch S1 S2 q f x Hqr).
      intros E Hb. inversion E; subst u'. rewrite <- opaque_url_qf in *.
      apply Canon_opaque. apply (opaque_ok_qf sch P q f); try assumption.
      * cbn [opt_clean]. rewrite (ok_ns _ _ _ _ K). exact (squery_of_clean STNotSpecial x Hqr).
      * exact (ok_f _ _ _ _ K).
      * intros E0. discriminate E0.
    + rewrite (set_query_qf_none dbg _ _ _ _ _ _ _ _ q f true)
        by (rewrite <- opaque_url_qf; apply opaque_cbb_gen; exact (ok_Ph _ _ _ _ K)).
      intros E Hb. inversion E; subst u'. clear E. destruct f as [y|]; cbn [andb] in *.
      * rewrite <- opaque_url_qf in *. apply Canon_opaque. apply (opaque_ok_qf sch P q (Some y)); try assumption.
        -- exact (ok_f _ _ _ _ K).
        -- intros _ E0. discriminate E0.
      * rewrite rstrip32_opaque_pre. exact (Canon_opaque sch (rstrip32 P) None None (rstrip32_ok sch P q None K)).
  - (* no authority *)
    rewrite noauth_url_qf. destruct (noauth_pre_sch sch (path_text segs last)) as [S1 S2]. destruct qr as [x|].
    + rewrite (set_query_qf_some dbg _ _ _ _ _ _ _ _ sch S1 S2 q f x Hqr).
      intros E Hb. inversion E; subst u'. rewrite <- noauth_url_qf in *.
      apply Canon_noauth. apply (noauth_ok_qf sch segs last q f); try assumption.
      * cbn [opt_clean]. rewrite (nk_ns _ _ _ _ _ K). exact (squery_of_clean STNotSpecial x Hqr).
      * exact (nk_f _ _ _ _ _ K).
    + assert (noauth_ok sch segs last None None) as K0 by (destruct K; constructor; try assumption; exact I).
      rewrite (set_query_qf_none dbg _ _ _ _ _ _ _ _ q f false)
        by (rewrite <- noauth_url_qf; exact (proj1 (proj2 (noauth_url_wf sch segs last None None K0)))).
      intros E Hb. inversion E; subst u'. cbn [andb] in *. rewrite <- noauth_url_qf in *.
      apply Canon_noauth. apply (noauth_ok_qf sch segs last q f); try assumption; try exact I; try exact (nk_f _ _ _ _ _ K).
  - exact (set_query_authority STNotSpecial sch ui h pt p q f qr u' eq_refl K ltac:(discriminate) Hqr).
  - exact (set_query_authority STSpecialNotFile sch ui h pt p q f qr u' eq_refl K (fun _ => Kp) Hqr).
Qed.

End Canon.
