(* Proofs/Idna_C10b_AsciiWalk.v - process when every already_punycode entry is MixedCaseAscii (the adapter-free class
   of Proofs/Idna_C10b_AsciiInner.v): by walk1_spec what is written, or the input when the walk returns Passthrough,
   is the ASCII lower-casing of the name.  Then: to_ascii on the class in closed form,
   idempotence and ASCII case-insensitivity on the class - every adapter, every option combination. *)
From RU Require Import Base.Prelude Base.Utf8 Base.U32_c13 Gen.Tables Model.Punycode Model.Uts46
  Proofs.Idna_Sim Proofs.Idna_Api Proofs.Idna_Known Proofs.Idna_Hyp Proofs.Idna_Redisc
  Proofs.Idna_C10_Deny Proofs.Idna_C10_Prefix Proofs.Idna_C10_Inner Proofs.Idna_C10_Walk Proofs.Idna_Tables
  Proofs.Idna_Mark Proofs.Idna_WalkFun Proofs.Idna_WalkApi Proofs.Idna_C10b_AsciiInner.




Lemma to_lower_dot x : (to_lower x =? DOT) = (x =? DOT).
Proof. unfold to_lower, is_upper, DOT. destruct ((65 <=? x) && (x <=? 90)) eqn:E; lia. Qed.

Lemma split1_map_lower l : split1 DOT (map to_lower l) = (map to_lower (fst (split1 DOT l)), map (map to_lower) (snd (split1 DOT l))).
Proof.
  induction l as [|x r IH]; cbn [map split1]; [reflexivity|]. rewrite IH. destruct (split1 DOT r) as [h t]. cbn [fst snd].
  rewrite to_lower_dot. destruct (x =? DOT); reflexivity.
Qed.
Lemma split_on_map_lower l : split_on DOT (map to_lower l) = map (map to_lower) (split_on DOT l).
Proof. unfold split_on. rewrite split1_map_lower. destruct (split1 DOT l) as [h t]. reflexivity. Qed.

Lemma lower_join rl : map to_lower (join_dots rl) = join_dots (map (map to_lower) rl).
Proof.
  induction rl as [|x r IH]; [reflexivity|]. destruct r as [|y r'].
  - reflexivity.
  - change (join_dots (x :: y :: r')) with (x ++ DOT :: join_dots (y :: r')). rewrite map_app. cbn [map]. rewrite IH. reflexivity.
Qed.

Lemma lower_ascii l : Forall (fun b => b < 128) l -> Forall (fun b => b < 128) (map to_lower l).
Proof.
  intros H. apply Forall_forall. intros x Hx. apply in_map_iff in Hx. destruct Hx as (b & <- & Hb).
  rewrite Forall_forall in H. specialize (H b Hb). unfold to_lower, is_upper. destruct ((65 <=? b) && (b <=? 90)) eqn:E; lia.
Qed.
Lemma lower_ascii_inv l : Forall (fun b => b < 128) (map to_lower l) -> Forall (fun b => b < 128) l.
Proof.
  intros H. apply Forall_forall. intros x Hx. rewrite Forall_forall in H. specialize (H _ (in_map to_lower l x Hx)).
  unfold to_lower, is_upper in H. destruct ((65 <=? x) && (x <=? 90)) eqn:E; lia.
Qed.
Lemma lower_lower l : map to_lower (map to_lower l) = map to_lower l.
Proof.
  rewrite map_map. apply map_ext. intros a. unfold to_lower, is_upper.
  destruct ((65 <=? a) && (a <=? 90)) eqn:E; [|rewrite E; reflexivity].
  destruct ((65 <=? a + 32) && (a + 32 <=? 90)) eqn:E2; [lia|reflexivity].
Qed.

Lemma lower_is a t u v : to_lower a = t -> (t = u \/ t = v) -> v + 32 = u -> 65 <= v -> v <= 90 -> a = u \/ a = v.
Proof. unfold to_lower, is_upper. intros H [->| ->] Hv H1 H2; destruct ((65 <=? a) && (a <=? 90)) eqn:E; lia. Qed.
Lemma lower_is_hyphen a : to_lower a = 45 -> a = 45.
Proof. unfold to_lower, is_upper. destruct ((65 <=? a) && (a <=? 90)) eqn:E; lia. Qed.

Lemma xn_prefix_conv a b r : (a = 120 \/ a = 88) -> (b = 110 \/ b = 78) -> has_punycode_prefix (a :: b :: 45 :: 45 :: r) = true.
Proof. intros [->| ->] [->| ->]; vm_compute; reflexivity. Qed.

Lemma hpp_lower l : Forall (fun b => b < 128) l -> has_punycode_prefix (map to_lower l) = has_punycode_prefix l.
Proof.
  intros Ha. destruct (has_punycode_prefix l) eqn:E1.
  - destruct (xn_prefix_spec l Ha E1) as (a & b & r & -> & Xa & Xb). cbn [map].
    apply xn_prefix_conv.
    + left. destruct Xa as [->| ->]; reflexivity.
    + left. destruct Xb as [->| ->]; reflexivity.
  - destruct (has_punycode_prefix (map to_lower l)) eqn:E2; [|reflexivity].
    destruct (xn_prefix_spec _ (lower_ascii l Ha) E2) as (a' & b' & r' & Hl & Xa & Xb).
    destruct l as [|a [|b [|c [|e r]]]]; cbn [map] in Hl; try discriminate.
    injection Hl as H1 H2 H3 H4 _.
    apply lower_is_hyphen in H3. apply lower_is_hyphen in H4. subst c e.
    rewrite (xn_prefix_conv a b r) in E1; [discriminate| |].
    + exact (lower_is a a' 120 88 H1 Xa eq_refl ltac:(lia) ltac:(lia)).
    + exact (lower_is b b' 110 78 H2 Xb eq_refl ltac:(lia) ltac:(lia)).
Qed.

Lemma AN_ascii d : AN d -> Forall (fun b => b < 128) d.
Proof.
  intros H. rewrite <- (join_split d). apply join_dots_Forall; [unfold DOT; lia|].
  eapply Forall_impl; [|exact H]. cbv beta. intros a Ha. exact (proj1 Ha).
Qed.

Lemma AN_lower d : Forall (fun b => b < 128) d -> (AN (map to_lower d) <-> AN d).
Proof.
  intros Ha. unfold AN. rewrite split_on_map_lower.
  pose proof (split_on_Forall (fun b => b < 128) DOT d Ha) as Hl.
  split; intros H; apply Forall_forall; intros l Hin.
  - rewrite Forall_forall in H, Hl. specialize (Hl l Hin).
    destruct (H _ (in_map (map to_lower) _ l Hin)) as [_ H2]. split; [exact Hl|]. rewrite (hpp_lower l Hl) in H2. exact H2.
  - apply in_map_iff in Hin. destruct Hin as (l0 & <- & Hin). rewrite Forall_forall in H, Hl.
    specialize (Hl l0 Hin). destruct (H l0 Hin) as [_ H2]. split; [exact (lower_ascii l0 Hl)|]. rewrite (hpp_lower l0 Hl). exact H2.
Qed.

Lemma acc_lower deny hy d : DenyUpper deny -> LdhFree deny -> Forall (fun b => b < 128) d ->
  forallb (lab_acc deny hy) (split_on DOT (map to_lower d)) = forallb (lab_acc deny hy) (split_on DOT d).
Proof.
  intros HU HL Ha. rewrite split_on_map_lower.
  pose proof (split_on_Forall (fun b => b < 128) DOT d Ha) as Hl.
  induction Hl as [|l r Hl _ IH]; cbn [map forallb]; [reflexivity|]. rewrite IH, (lab_acc_lower deny HU HL hy l Hl). reflexivity.
Qed.

Section MainAN.
Variable A : adapter.
Variable cfg : bool.

(* an accepted name of the class, either mode, any display policy: walk1_spec with every entry MixedCaseAscii;
   outs_mca gives the lower-cased labels as the text written *)
Theorem process_an_acc ff pol d deny hy : bytes d -> AN d -> DenyUpper deny -> LdhFree deny ->
  forallb (lab_acc deny hy) (split_on DOT d) = true ->
  let pr := process A cfg ff pol d deny hy None None false in
  (exists s1, pr = (PPassthrough, s1, []) /\ map to_lower d = d) \/ pr = (PWroteToSink, map to_lower d, []).
Proof.
  intros Hb Han HU HL Hacc. cbv zeta.
  pose proof (process_inner_an_facts deny hy HU HL A cfg d Hb Han) as HF. rewrite Hacc in HF.
  destruct HF as (ptu & db & P & rl & Ei & Hdd & HP & Hc & Hnf & Hsp).
  rewrite (process_inner_an_acc A cfg true deny hy HU HL d Hb Han Hacc) in Ei.
  rewrite <- (process_inner_an_acc A cfg ff deny hy HU HL d Hb Han Hacc) in Ei.
  assert (HlP : map to_lower P = P).
  { apply lower_noupper. eapply Forall_impl; [|exact Hc]. intros c Hcc. exact (proj1 (proj2 (clean_final deny c HU Hcc))). }
  assert (Hlow : map to_lower d = P ++ join_dots (map (map to_lower) rl)).
  { rewrite Hdd at 1. rewrite map_app, HlP, lower_join. reflexivity. }
  unfold process. rewrite Ei.
  destruct (ptu =? len d) eqn:Ep.
  - left. rewrite andb_false_r. exists []. split; [reflexivity|].
    apply N.eqb_eq in Ep. assert (Hj : join_dots rl = []).
    { apply len_zero. rewrite Hdd in Ep. rewrite len_app in Ep. lia. }
    rewrite Hlow, <- lower_join, Hj. cbn [map]. rewrite Hdd, Hj. reflexivity.
  - assert (Hne : rl <> []).
    { intros ->. apply N.eqb_neq in Ep. apply Ep. rewrite Hdd. cbn [join_dots]. rewrite app_nil_r. symmetry. exact HP. }
    rewrite (andb_false_r ff). rewrite Hnf. cbn [Bool.eqb negb]. rewrite andb_false_r. rewrite (Hsp Hne).
    assert (Hcv : cover (map MixedCaseAscii rl) rl) by (clear; induction rl; cbn [map]; constructor; assumption).
    assert (Hfl : efffd (map (cmap deny) rl) = false) by (rewrite <- (Hsp Hne), <- fffd_join, join_split; exact Hnf).
    assert (Hll : length (map (cmap deny) rl) = length rl) by apply map_length.
    assert (Hl2 : length (map (cmap deny) rl) = length (map MixedCaseAscii rl)) by (rewrite !map_length; reflexivity).
    assert (Hn2 : map (cmap deny) rl <> []) by (destruct rl; [contradiction Hne; reflexivity|discriminate]).
    match goal with |- context [walk1 ?a ?b ?c ?d0 ?e ?f ?g ?h ?i ?j ?k ?l ?m] =>
      pose proof (walk1_spec a d0 g b c e f h i j k l m P rl Hl2 (fun _ => Hfl) (fun _ => conj Hn2 (conj Hdd (conj HP Hcv)))) as HW;
      destruct (walk1 a b c d0 e f g h i j k l m) as [ws we] end.
    match type of HW with context [outs _ ?u ?x ?y] =>
      pose proof (outs_mca cfg u [] [] x rl Hll) as Ho; rewrite !app_nil_r in Ho; cbn [outs] in Ho; rewrite app_nil_r in Ho;
      unfold Post1 in HW; rewrite Ho in HW end.
    unfold Res1 in HW. cbn [negb andb tailtext] in HW. rewrite <- Hlow in HW.
    match type of HW with context [stays ?u ?x ?y] => destruct (stays u x y) end.
    + destruct HW as [Hd Hwe]. rewrite andb_false_r in Hwe. cbn [snd] in Hwe. subst we. cbn [fst snd run_sink negb].
      left. exists (concat ws). split; [reflexivity|exact Hd].
    + destruct HW as [Hwe Hws]. cbn [snd] in Hwe. subst we. cbn [fst snd run_sink negb].
      right. rewrite andb_false_r. unfold wcat in Hws. cbn [fst] in Hws. rewrite Hws. reflexivity.
Qed.

Theorem process_an d deny hy : bytes d -> AN d -> DenyUpper deny -> LdhFree deny ->
  let pr := process A cfg true never_unicode d deny hy None None false in
  if forallb (lab_acc deny hy) (split_on DOT d) then
    (exists s1, pr = (PPassthrough, s1, []) /\ map to_lower d = d) \/ pr = (PWroteToSink, map to_lower d, [])
  else pr = (PValidityError, [], []).
Proof.
  intros Hb Han HU HL. cbv zeta.
  destruct (forallb (lab_acc deny hy) (split_on DOT d)) eqn:Hacc.
  - exact (process_an_acc true never_unicode d deny hy Hb Han HU HL Hacc).
  - pose proof (process_inner_an_facts deny hy HU HL A cfg d Hb Han) as HF. rewrite Hacc in HF.
    destruct HF as [Ei Hne]. unfold process. rewrite Ei. unfold I_EXIT.
    replace (0 =? len d) with false; [reflexivity|].
    symmetry. apply N.eqb_neq. intros H. symmetry in H. apply len_zero in H. contradiction.
Qed.
End MainAN.

Section ToAsciiAN.
Variable A : adapter.
Variable cfg : bool.

Lemma is_ascii_l_intro l : Forall (fun b => b < 128) l -> is_ascii_l l = true.
Proof. intros H. unfold is_ascii_l. apply forallb_forall. rewrite Forall_forall in H. intros x Hx. unfold is_ascii_cp. specialize (H x Hx). lia. Qed.

(* to_ascii on the class, in closed form: the text is the ASCII lower-casing of the name; it is accepted iff every
   label is accepted (deny list, hyphens) and - when requested - the lower-cased name satisfies the DNS limits *)
Theorem to_ascii_an d deny hy dns : AN d -> DenyUpper deny -> LdhFree deny ->
  exists b, to_ascii A cfg d deny hy dns =
    if forallb (lab_acc deny hy) (split_on DOT d)
       && (dns_is_ignore dns || verify_dns_length (map to_lower d) (dns_is_root dns))
    then Ok (b, map to_lower d) else Err.
Proof.
  intros Han HU HL. pose proof (AN_ascii d Han) as Ha.
  assert (Hb : bytes d) by (unfold bytes; eapply Forall_impl; [|exact Ha]; unfold is_byte; cbv beta; intros; lia).
  pose proof (process_an A cfg d deny hy Hb Han HU HL) as HP. cbv zeta in HP. unfold to_ascii.
  pose proof (is_ascii_l_intro _ (lower_ascii d Ha)) as Hal.
  destruct (forallb (lab_acc deny hy) (split_on DOT d)); cbn [andb].
  - destruct HP as [(s1 & -> & Hlow)| ->].
    + exists true. rewrite Hlow in *. rewrite Hal.
      destruct (dns_is_ignore dns); cbn [negb orb]; [reflexivity|]. rewrite andb_false_r.
      destruct (verify_dns_length d (dns_is_root dns)); reflexivity.
    + exists false. rewrite Hal.
      destruct (dns_is_ignore dns); cbn [negb orb]; [reflexivity|]. rewrite andb_false_r.
      destruct (verify_dns_length (map to_lower d) (dns_is_root dns)); reflexivity.
  - exists true. rewrite HP. reflexivity.
Qed.

(* idempotence on the class *)
Theorem to_ascii_an_idem d deny hy dns b r : AN d -> DenyUpper deny -> LdhFree deny ->
  to_ascii A cfg d deny hy dns = Ok (b, r) ->
  r = map to_lower d /\ AN r /\ exists b', to_ascii A cfg r deny hy dns = Ok (b', r).
Proof.
  intros Han HU HL H. pose proof (AN_ascii d Han) as Ha.
  destruct (to_ascii_an d deny hy dns Han HU HL) as (b0 & H0). rewrite H in H0.
  destruct (forallb (lab_acc deny hy) (split_on DOT d)
            && (dns_is_ignore dns || verify_dns_length (map to_lower d) (dns_is_root dns))) eqn:Ec; [|discriminate].
  inversion H0. subst b0 r. split; [reflexivity|].
  pose proof (proj2 (AN_lower d Ha) Han) as Han2. split; [exact Han2|].
  destruct (to_ascii_an (map to_lower d) deny hy dns Han2 HU HL) as (b1 & H1).
  rewrite (acc_lower deny hy d HU HL Ha), lower_lower, Ec in H1. exists b1. exact H1.
Qed.

(* ASCII case-insensitivity on the class *)
Theorem to_ascii_an_case d d' deny hy dns b r : AN d -> DenyUpper deny -> LdhFree deny ->
  ascii_case_variant d d' -> to_ascii A cfg d deny hy dns = Ok (b, r) ->
  AN d' /\ exists b', to_ascii A cfg d' deny hy dns = Ok (b', r).
Proof.
  intros Han HU HL Hv H. pose proof (AN_ascii d Han) as Ha. unfold ascii_case_variant in Hv.
  assert (Ha' : Forall (fun b => b < 128) d') by (apply lower_ascii_inv; rewrite <- Hv; exact (lower_ascii d Ha)).
  assert (Han' : AN d').
  { apply (AN_lower d' Ha'). rewrite <- Hv. exact (proj2 (AN_lower d Ha) Han). }
  split; [exact Han'|].
  destruct (to_ascii_an d deny hy dns Han HU HL) as (b0 & H0). rewrite H in H0.
  destruct (forallb (lab_acc deny hy) (split_on DOT d)
            && (dns_is_ignore dns || verify_dns_length (map to_lower d) (dns_is_root dns))) eqn:Ec; [|discriminate].
  inversion H0. subst b0 r.
  destruct (to_ascii_an d' deny hy dns Han' HU HL) as (b1 & H1).
  rewrite <- (acc_lower deny hy d' HU HL Ha'), <- Hv, (acc_lower deny hy d HU HL Ha), Ec in H1. exists b1. exact H1.
Qed.
End ToAsciiAN.

(* a sound boolean test for the class (ANb d = true -> AN d; the converse is not stated) *)
Definition an_labelb (l : list N) : bool := forallb (fun b => b <? 128) l && negb (has_punycode_prefix l).
Definition ANb (d : list N) : bool := forallb an_labelb (split_on DOT d).
Lemma ANb_spec d : ANb d = true -> AN d.
Proof.
  unfold ANb, AN. intros H. rewrite forallb_forall in H. apply Forall_forall. intros l Hl. specialize (H l Hl).
  unfold an_labelb in H. apply andb_true_iff in H. destruct H as [H1 H2]. split.
  - rewrite forallb_forall in H1. apply Forall_forall. intros x Hx. specialize (H1 x Hx). lia.
  - apply negb_true_iff. exact H2.
Qed.

Example an_premises_hold :
  AN [65; 45; 98; 46; 88; 110; 45; 99; 46] /\ valid_deny DENY_URL /\
  to_ascii toy true [65; 45; 98; 46; 88; 110; 45; 99; 46] DENY_URL HCheck DVerifyAllowRootDot
    = Ok (false, [97; 45; 98; 46; 120; 110; 45; 99; 46]) /\
  lab_acc DENY_URL HCheck [65; 45; 98] = true /\ lab_acc DENY_URL HCheck [65; 45] = false /\ lab_acc DENY_URL HAllow [65; 45] = true /\
  lab_acc DENY_URL HAllow [65; 37] = false.
Proof.
  split; [apply ANb_spec; vm_compute; reflexivity|].
  split; [right; exists T_IDNA_URL_GLYPHLESS, T_IDNA_URL_LIST; reflexivity|].
  vm_compute. repeat split; reflexivity.
Qed.

(* to_ascii_an, to_ascii_an_idem, to_ascii_an_case for the deny lists the API can build (valid_deny gives DenyUpper
   and LdhFree) *)
Theorem c10_an A cfg d deny hy dns : AN d -> valid_deny deny ->
  exists b, to_ascii A cfg d deny hy dns =
    if forallb (lab_acc deny hy) (split_on DOT d)
       && (dns_is_ignore dns || verify_dns_length (map to_lower d) (dns_is_root dns))
    then Ok (b, map to_lower d) else Err.
Proof. intros Han Hv. destruct (valid_deny_facts deny Hv) as [HU HL]. exact (to_ascii_an A cfg d deny hy dns Han HU HL). Qed.
Theorem c10_idem_an A cfg d deny hy dns b r : AN d -> valid_deny deny ->
  to_ascii A cfg d deny hy dns = Ok (b, r) ->
  r = map to_lower d /\ AN r /\ exists b', to_ascii A cfg r deny hy dns = Ok (b', r).
Proof. intros Han Hv. destruct (valid_deny_facts deny Hv) as [HU HL]. exact (to_ascii_an_idem A cfg d deny hy dns b r Han HU HL). Qed.
Theorem c10_case_an A cfg d d' deny hy dns b r : AN d -> valid_deny deny ->
  ascii_case_variant d d' -> to_ascii A cfg d deny hy dns = Ok (b, r) ->
  AN d' /\ exists b', to_ascii A cfg d' deny hy dns = Ok (b', r).
Proof. intros Han Hv. destruct (valid_deny_facts deny Hv) as [HU HL]. exact (to_ascii_an_case A cfg d d' deny hy dns b r Han HU HL). Qed.
