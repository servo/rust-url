(* Proofs/C09_LongOrigin.v - C16's origin round trip (C16_rt_parsed_model / C09_inst_C16_rt_parsed) for the parser
   linked with the oracle ITSELF under IdnaOK2.

   url_origin re-enters the parser on the path of a blob: URL and swallows its errors (an unparsable inner URL has an
   opaque origin), so a capped run and a run with the oracle itself can differ silently there; but a TUPLE origin
   computed with the capped oracle is the origin computed with the oracle itself.  The premise "no host of the run is
   in the class" is therefore stated as: the parse and the origin computation succeed with the capped oracle. *)
From RU Require Import Base.Prelude Gen.Tables Model.Host Model.UrlRecord Model.Parser Model.Origin Proofs.C09_Long
  Proofs.C09_LongRun Proofs.C16_Origin Proofs.C16_RT6Model.

Section Origin2.
Variable dbg : bool.
Variable idna : list N -> option (list N).

Notation hp := (host_parse idna).
Notation hpc := (host_parse (cap idna)).
Notation hpo := host_parse_opaque.
Notation hd := host_display.

Lemma url_parse_cap_ok s u : url_parse dbg hpc hpo hd s = POk u -> url_parse dbg hp hpo hd s = POk u.
Proof. unfold url_parse. intros H. exact (parse_url_cap_run dbg idna None None _ u H). Qed.

(* a tuple origin computed with the capped oracle is the origin computed with the oracle itself *)
Lemma origin_fuel_cap f : forall c u o c', url_origin_fuel dbg hpc hpo hd f c u = OOk o c' -> is_tuple o = true ->
  url_origin_fuel dbg hp hpo hd f c u = OOk o c'.
Proof.
  induction f as [|f IH]; intros c u o c' H Ht.
  - cbn [url_origin_fuel] in H |- *. destruct (scheme u) as [s|]; [|discriminate].
    destruct (str_mem s T_ORIGIN_BLOB_SCHEMES); [|exact H].
    destruct (path u) as [p|]; [|discriminate].
    destruct (url_parse dbg hpc hpo hd p) as [v|e|] eqn:Ep; [discriminate| |discriminate].
    rewrite (new_opaque_kind c o c' H) in Ht. discriminate.
  - cbn [url_origin_fuel] in H |- *. destruct (scheme u) as [s|]; [|discriminate].
    destruct (str_mem s T_ORIGIN_BLOB_SCHEMES); [|exact H].
    destruct (path u) as [p|]; [|discriminate].
    destruct (url_parse dbg hpc hpo hd p) as [v|e|] eqn:Ep; [| |discriminate].
    + rewrite (url_parse_cap_ok p v Ep). exact (IH c v o c' H Ht).
    + rewrite (new_opaque_kind c o c' H) in Ht. discriminate.
Qed.

Lemma origin_cap c u o c' : url_origin dbg hpc hpo hd c u = OOk o c' -> is_tuple o = true ->
  url_origin dbg hp hpo hd c u = OOk o c'.
Proof. unfold url_origin. apply origin_fuel_cap. Qed.

Hypothesis OK : IdnaOK2 idna.

(* C16: the ASCII serialization of the tuple origin of a parse result parses back to a URL with that origin - all four
   runs of the conclusion with the oracle itself *)
Theorem origin_rt_model2 input u c o c' :
  url_parse dbg hpc hpo hd input = POk u ->
  url_origin dbg hpc hpo hd c u = OOk o c' -> is_tuple o = true ->
  nlen (ascii_serialization hd o) < U32_MAX_P ->
  (url_parse dbg hp hpo hd input = POk u /\ url_origin dbg hp hpo hd c u = OOk o c')
  /\ exists w, url_parse dbg hp hpo hd (ascii_serialization hd o) = POk w
               /\ url_origin dbg hp hpo hd c' w = OOk o c'.
Proof.
  intros Hu Ho Ht HB. split; [split; [exact (url_parse_cap_ok input u Hu) | exact (origin_cap c u o c' Ho Ht)]|].
  destruct (rt_parsed_model dbg (cap idna) hpo input u c o c' (IdnaOK2_cap idna OK) Hu Ho Ht HB) as (w & Hw & How).
  exists w. split; [exact (url_parse_cap_ok _ w Hw) | exact (origin_cap c' w o c' How Ht)].
Qed.
End Origin2.
