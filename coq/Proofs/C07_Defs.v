(* Proofs/C07_Defs.v - vocabulary of property C07: the ten attribute setters on the model side
   (url::quirks, Model/Setters.v; href = the parser without a base) and on the Standard's side
   (Spec/Whatwg.v spec_set), the ten API strings of both, histories, and small host functions used by
   the computed witnesses. *)
From RU Require Import Base.Prelude Base.Utf8 Model.AsciiSet Gen.Tables Model.PercentEncoding
  Model.HostT Model.UrlRecord Model.Parser Model.Setters Model.KnownC01 Model.KnownC07 Spec.Whatwg.

Definition setter_of_q (s : qsetter) : setter :=
  match s with
  | QHref => SetHref | QProtocol => SetProtocol | QUsername => SetUsername | QPassword => SetPassword
  | QHost => SetHost | QHostname => SetHostname | QPort => SetPort | QPathname => SetPathname
  | QSearch => SetSearch | QHash => SetHash
  end.

Definition all_qsetters : list qsetter :=
  [QHref; QProtocol; QUsername; QPassword; QHost; QHostname; QPort; QPathname; QSearch; QHash].

Section ModelSide.
Variable dbg : bool.
Variable hp ho : list N -> result host.
Variable hd : host -> list N.

(* url::quirks::set_<s>(&mut u, v) : the record afterwards; None = the code panics.
   set_href replaces the URL by the parse result and leaves it alone when parsing fails. *)
Definition model_set (s : qsetter) (u : url) (v : list N) : option url :=
  match s with
  | QHref => match parse_url dbg hp ho hd None None v with
             | POk u' => Some u' | PErr _ => Some u | PPanic => None end
  | QProtocol => option_map fst (q_set_protocol dbg u v)
  | QUsername => option_map fst (q_set_username dbg u v)
  | QPassword => option_map fst (q_set_password dbg u v)
  | QHost => option_map fst (q_set_host dbg hp ho hd u v)
  | QHostname => option_map fst (q_set_hostname dbg hp ho hd u v)
  | QPort => option_map fst (q_set_port dbg u v)
  | QPathname => q_set_pathname dbg u v
  | QSearch => q_set_search dbg u v
  | QHash => q_set_hash dbg u v
  end.

(* the ten url::quirks getters, in the order href protocol username password host hostname port
   pathname search hash; None = one of them panics *)
Definition model_api (u : url) : option (list (list N)) :=
  a1 <- q_protocol u ;; a2 <- q_username dbg u ;; a3 <- q_password dbg u ;; a4 <- q_host dbg u ;;
  a5 <- q_hostname u ;; a6 <- q_port dbg u ;; a7 <- q_pathname u ;; a8 <- q_search dbg u ;;
  a9 <- q_hash dbg u ;;
  Some [q_href u; a1; a2; a3; a4; a5; a6; a7; a8; a9].

Fixpoint model_run (u : url) (ops : list (qsetter * list N)) : option url :=
  match ops with
  | [] => Some u
  | (s, v) :: r => match model_set s u v with Some u' => model_run u' r | None => None end
  end.

(* no assignment of the history, taken in the state the model has reached, is in Known_C07 *)
Fixpoint outside_known (u : url) (ops : list (qsetter * list N)) : Prop :=
  match ops with
  | [] => True
  | (s, v) :: r =>
      known_c07 u s v = 0
      /\ match model_set s u v with Some u' => outside_known u' r | None => True end
  end.
End ModelSide.

Section SpecSide.
Variable shp : bool -> list N -> option spec_host.

(* the attribute setter of the Standard; None = the fuel of the specification model ran out
   (Spec/WhatwgFuel.v: it does not) *)
Definition spec_step (s : qsetter) (su : spec_url) (v : list N) : option spec_url :=
  match spec_set shp (setter_of_q s) su v with SetTo su' => Some su' | SetOutOfFuel => None end.

Fixpoint spec_run (su : spec_url) (ops : list (qsetter * list N)) : option spec_url :=
  match ops with
  | [] => Some su
  | (s, v) :: r => match spec_step s su v with Some su' => spec_run su' r | None => None end
  end.
End SpecSide.

(* small host functions for computed witnesses
   Every non-empty text is a domain (special schemes) / an opaque host (other schemes) that
   serialises as itself; the empty text is rejected for special schemes and is the empty host
   otherwise.  Both sides get the same functions. *)
Definition toy_hp (s : list N) : result host := match s with [] => Err EmptyHost | _ => Ok (HDomain s) end.
Definition toy_ho (s : list N) : result host := Ok (HDomain s).
Definition toy_hd (h : host) : list N := match h with HDomain d => d | _ => [] end.
Definition toy_shp (is_opaque : bool) (s : list N) : option spec_host :=
  match s with
  | [] => if is_opaque then Some SEmpty else None
  | _ => Some (if is_opaque then SOpaque s else SDomain s)
  end.
Definition toy_shs (h : spec_host) : list N :=
  match h with SDomain d => d | SOpaque s => s | _ => [] end.

(* parse a text on both sides with the small host functions *)
Definition toy_parse (s : list N) : option url :=
  match parse_url true toy_hp toy_ho toy_hd None None s with POk u => Some u | _ => None end.
Definition toy_sparse (s : list N) : option spec_url :=
  match spec_basic_url_parse toy_shp s None with BDone u => Some u | _ => None end.

Fixpoint lists_eqb (a b : list (list N)) : bool :=
  match a, b with
  | [], [] => true
  | x :: a', y :: b' => list_eqb x y && lists_eqb a' b'
  | _, _ => false
  end.

(* the ten API strings of a model record and of a URL record of the Standard are the same *)
Definition toy_api_agree (u : url) (su : spec_url) : bool :=
  match model_api true u with
  | Some a => lists_eqb a (spec_api_list toy_shs su)
  | None => false
  end.

(* 0 = the ten API strings agree after the assignment; 1 = they differ; 2 = the start URL does not
   parse on one side / its API strings differ already; 3 = panic or out of fuel *)
Definition toy_compare (start : list N) (s : qsetter) (v : list N) : N :=
  match toy_parse start, toy_sparse start with
  | Some u, Some su =>
      if negb (toy_api_agree u su) then 2
      else match model_set true toy_hp toy_ho toy_hd s u v, spec_step toy_shp s su v with
           | Some u', Some su' => if toy_api_agree u' su' then 0 else 1
           | _, _ => 3
           end
  | _, _ => 2
  end.

(* a history, checked after every step, up to its first step inside Known_C07 *)
Fixpoint toy_run_check (u : url) (su : spec_url) (ops : list (qsetter * list N)) : bool :=
  match ops with
  | [] => true
  | (s, v) :: r =>
      if negb (known_c07 u s v =? 0) then true
      else match model_set true toy_hp toy_ho toy_hd s u v, spec_step toy_shp s su v with
           | Some u', Some su' => toy_api_agree u' su' && toy_run_check u' su' r
           | _, _ => false
           end
  end.
Definition toy_history_ok (start : list N) (ops : list (qsetter * list N)) : bool :=
  match toy_parse start, toy_sparse start with
  | Some u, Some su => toy_api_agree u su && toy_run_check u su ops
  | _, _ => false
  end.

Definition toy_known (start : list N) (s : qsetter) (v : list N) : N :=
  match toy_parse start with Some u => known_c07 u s v | None => 0 end.
