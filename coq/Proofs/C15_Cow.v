(* Proofs/C15_Cow.v - when decode() hands back a borrow of its input. *)
From RU Require Import Base.Prelude Base.Utf8 Base.Utf8Facts
  Model.PercentEncoding Model.FormUrlencoded Proofs.C14_Views
  Proofs.C15_Parse.

Lemma map_p2s_id x : Forall (fun b => b <> 43) x -> map plus_to_space x = x.
Proof.
  induction x as [|b r IH]; intros H; [reflexivity|].
  inversion H as [|? ? Hb Hr]; subst. cbn [map]. rewrite plus_to_space_eq.
  replace (b =? 43) with false by lia. f_equal. apply IH. exact Hr.
Qed.

(* decode(input) is Cow::Borrowed exactly when nothing had to change: no '+', no decodable escape,
   valid UTF-8; the value is then the input itself *)
Theorem fu_decode_borrow_iff x :
  fst (fu_decode x) = BorrowedInput
  <-> (Forall (fun b => b <> 43) x /\ decode x = x /\ utf8_valid x = true).
Proof.
  unfold fu_decode.
  pose proof (replace_plus_borrow_iff x) as Hrp. pose proof (replace_plus_value x) as Hv.
  destruct (replace_plus x) as [k r]. cbn [fst snd] in *.
  pose proof (pd_cow_borrow_iff r) as Hpd. unfold pd_cow in *.
  destruct (if_any r) as [v|]; cbn [fst] in Hpd.
  - cbn [decode_utf8_lossy fst]. split; [discriminate|]. intros (Hp & Hd & _). exfalso.
    rewrite (map_p2s_id x Hp) in Hv. subst r. apply Hpd in Hd. discriminate.
  - assert (Hd : decode r = r) by (apply Hpd; reflexivity).
    destruct k; unfold decode_utf8_lossy; cbn [fst snd].
    + assert (Hp : Forall (fun b => b <> 43) x) by (apply Hrp; reflexivity).
      rewrite (map_p2s_id x Hp) in Hv. subst r.
      destruct (utf8_valid x); split; try tauto; try discriminate.
      intros (_ & _ & H). discriminate.
    + split; [destruct (utf8_valid r); discriminate|]. intros (Hp & _). apply Hrp in Hp. discriminate.
    + split; [discriminate|]. intros (Hp & _). apply Hrp in Hp. discriminate.
Qed.

Theorem fu_decode_borrowed_value x : fst (fu_decode x) = BorrowedInput -> utf8_strict x = inl (snd (fu_decode x)).
Proof.
  intros H. pose proof H as H0. apply fu_decode_borrow_iff in H. destruct H as (Hp & Hd & Hu).
  rewrite fu_decode_value. unfold fdec. rewrite (map_p2s_id x Hp), Hd.
  unfold utf8_valid, utf8_strict, utf8_lossy in *.
  (* strict decoding succeeds, so there is no invalid item and lossy = strict *)
  assert (G : forall its acc upto l, strict_of_items acc upto its = inl l ->
              l = rev acc ++ map (fun it => match it with UCp c _ => c | UBad _ _ => REPLACEMENT end) its).
  { induction its as [|it r IH]; intros acc upto l Hs; cbn [strict_of_items map] in *.
    - inversion Hs. rewrite app_nil_r. reflexivity.
    - destruct it as [c n|n tr]; [|discriminate]. rewrite (IH _ _ _ Hs). cbn [rev]. rewrite <- app_assoc. reflexivity. }
  destruct (strict_of_items [] 0 (utf8_scan x)) as [l|e] eqn:E; [|discriminate].
  rewrite (G _ _ _ _ E). reflexivity.
Qed.
