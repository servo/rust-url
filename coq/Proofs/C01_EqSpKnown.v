(* Proofs/C01_EqSpKnown.v - the class of special non-file URLs without base (Proofs/C01_EqSp.v) contains every
   such input outside Known_C01: the only exclusion of the class (a ".." meeting a drive-letter-shaped
   segment, tested on the Standard's segment list and buffer) cannot occur when the raw text has no
   drive-letter-shaped piece (Known_C01 class 2, has_drive_segment).  Hence C01_statement holds for these
   inputs, up to the named Overflow clause and the hypothesis on the abstract host functions. *)
From RU Require Import Base.Prelude Base.Utf8 Model.UrlRecord Model.Parser Model.KnownC01 Spec.Whatwg
  Proofs.C01_EqRun Proofs.C01_EqPathSpec Proofs.C01_EqPath Proofs.C01_EqAuthSpec Proofs.C01_EqClasses2
  Proofs.C01_EqSpSpec Proofs.C01_EqSpPath Proofs.C01_EqSpModel Proofs.C01_EqSp Proofs.C01_KnownExact.

(* drive-letter-shaped segments: raw text vs the Standard's buffer *)
Definition no_pe (s : list N) : bool := forallb (fun c => negb (is_path_end c)) s.
Definition nowdl (P : list (list N)) : bool := forallb (fun t => negb (starts_with_wdl (t ++ [47]))) P.

Lemma upe_cp_shape inset c : utf8_percent_encode_cp inset c = [c]
  \/ exists h l tl, utf8_percent_encode_cp inset c = 37 :: h :: l :: tl.
Proof.
  unfold utf8_percent_encode_cp. destruct (inset c); [|left; reflexivity]. right.
  unfold utf8_encode. cbn [flat_map]. rewrite app_nil_r.
  destruct (utf8_encode1 c) as [|b bs] eqn:E.
  - exfalso. unfold utf8_encode1 in E. repeat (destruct (_ <? _) in E); discriminate E.
  - cbn [flat_map percent_encode_byte app]. eexists. eexists. eexists. reflexivity.
Qed.

Lemma wdl_raw Braw : no_pe Braw = true -> starts_with_wdl (upe in_path_set Braw ++ [47]) = true ->
  exists a b, Braw = [a; b] /\ is_alpha a = true /\ ((b =? 58) || (b =? 124)) = true.
Proof.
  intros Hn H. destruct Braw as [|x rest1]; [discriminate H|].
  rewrite upe_cons in H.
  destruct (upe_cp_shape in_path_set x) as [Ex|(h & l & tl & Ex)]; rewrite Ex in H.
  2:{ exfalso. cbn [app starts_with_wdl] in H. replace (is_alpha 37) with false in H by reflexivity. discriminate H. }
  destruct rest1 as [|y rest2].
  { exfalso. cbn [upe utf8_percent_encode flat_map app starts_with_wdl] in H.
    replace ((47 =? 58) || (47 =? 124)) with false in H by reflexivity. rewrite andb_false_r in H. discriminate H. }
  rewrite upe_cons in H.
  destruct (upe_cp_shape in_path_set y) as [Ey|(h & l & tl & Ey)]; rewrite Ey in H.
  2:{ exfalso. cbn [app starts_with_wdl] in H. replace ((37 =? 58) || (37 =? 124)) with false in H by reflexivity.
      rewrite andb_false_r in H. discriminate H. }
  destruct rest2 as [|z rest3].
  { cbn [upe utf8_percent_encode flat_map app starts_with_wdl] in H.
    apply andb_true_iff in H. destruct H as [H _]. apply andb_true_iff in H. destruct H as [H1 H2].
    exists x, y. repeat split; assumption. }
  exfalso. rewrite upe_cons in H.
  unfold no_pe in Hn. cbn [forallb] in Hn. apply andb_true_iff in Hn. destruct Hn as [_ Hn].
  apply andb_true_iff in Hn. destruct Hn as [_ Hn]. apply andb_true_iff in Hn. destruct Hn as [Hz _].
  apply negb_true_iff in Hz.
  destruct (upe_cp_shape in_path_set z) as [Ez|(h & l & tl & Ez)]; rewrite Ez in H; cbn [app starts_with_wdl] in H.
  - rewrite Hz in H. rewrite andb_false_r in H. discriminate H.
  - replace (is_path_end 37) with false in H by reflexivity. rewrite andb_false_r in H. discriminate H.
Qed.

Lemma hds_cons prev a b rest : has_drive_segment_from prev (a :: b :: rest)
  = (is_alpha a && ((b =? 58) || (b =? 124))
     && (match prev with None => true | Some p => is_path_end p end)
     && (match rest with [] => true | c :: _ => is_path_end c end))
    || has_drive_segment_from (Some a) (b :: rest).
Proof. reflexivity. Qed.

Lemma hds_suffix pre : forall prev c r, has_drive_segment_from prev (pre ++ c :: r) = false ->
  has_drive_segment_from (Some c) r = false.
Proof.
  induction pre as [|x pre IH]; intros prev c r H.
  - cbn [app] in H. destruct r as [|b rest]; [reflexivity|].
    rewrite hds_cons in H. apply orb_false_iff in H. tauto.
  - cbn [app] in H. remember (pre ++ c :: r) as t eqn:E. destruct t as [|b rest]; [destruct pre; discriminate E|].
    rewrite hds_cons in H. apply orb_false_iff in H. destruct H as [_ H]. rewrite E in H.
    exact (IH (Some x) c r H).
Qed.

Lemma hds_hit p a b rest : is_path_end p = true -> is_alpha a = true -> ((b =? 58) || (b =? 124)) = true ->
  match rest with [] => True | c :: _ => is_path_end c = true end ->
  has_drive_segment_from (Some p) (a :: b :: rest) = true.
Proof.
  intros Hp Ha Hb Hr. rewrite hds_cons. rewrite Ha, Hb, Hp. cbn [andb].
  destruct rest as [|c r]; [reflexivity|]. rewrite Hr. reflexivity.
Qed.

Lemma nowdl_last P : nowdl P = true -> last_is_wdl P = false.
Proof.
  unfold nowdl, last_is_wdl. intros H. destruct (rev P) as [|t r] eqn:E; [reflexivity|].
  assert (In t P) as Hin by (apply in_rev; rewrite E; left; reflexivity).
  rewrite forallb_forall in H. specialize (H t Hin). apply negb_true_iff in H. exact H.
Qed.

Lemma nowdl_fin_ok P B : nowdl P = true -> fin_ok P B = true.
Proof. intros H. unfold fin_ok. rewrite (nowdl_last P H). rewrite andb_false_r. reflexivity. Qed.

Lemma nowdl_removelast P : nowdl P = true -> nowdl (removelast P) = true.
Proof.
  unfold nowdl. intros H. rewrite forallb_forall in *. intros x Hx. apply H.
  destruct P as [|p0 P]; [destruct Hx|].
  assert (p0 :: P <> []) as Hne by discriminate.
  rewrite (app_removelast_last [] Hne). apply in_or_app. left. exact Hx.
Qed.

Lemma nowdl_fin P B sep : nowdl P = true -> (is_double_dot_segment B = false -> is_single_dot_segment B = false -> starts_with_wdl (B ++ [47]) = false) ->
  nowdl (fin P B sep) = true.
Proof.
  intros HP HB. unfold fin. pose proof (nowdl_removelast P HP) as HR. unfold nowdl in *.
  destruct (is_double_dot_segment B) eqn:Ed; [destruct sep; [exact HR | rewrite forallb_app, HR; reflexivity]|].
  destruct (is_single_dot_segment B) eqn:Es; [destruct sep; [exact HP | rewrite forallb_app, HP; reflexivity]|].
  rewrite forallb_app, HP. cbn [forallb]. rewrite (HB eq_refl eq_refl). reflexivity.
Qed.

(* no drive-letter-shaped piece in the raw text => the exclusion of the special class does not apply *)
Lemma spath_ok_s_raw x : forall p Braw P,
  is_path_end p = true -> no_pe Braw = true -> nowdl P = true ->
  has_drive_segment_from (Some p) (Braw ++ x) = false ->
  spath_ok_s x P (upe in_path_set Braw) = true.
Proof.
  induction x as [|c r IH]; intros p Braw P Hp Hn HP H.
  - cbn [spath_ok_s]. apply nowdl_fin_ok. exact HP.
  - cbn [spath_ok_s].
    assert (starts_with_wdl (upe in_path_set Braw ++ [47]) = false \/ is_path_end c = false) as HB.
    { destruct (is_path_end c) eqn:Ec; [left | right; reflexivity].
      destruct (starts_with_wdl (upe in_path_set Braw ++ [47])) eqn:E; [|reflexivity]. exfalso.
      destruct (wdl_raw Braw Hn E) as (a & b & -> & Ha & Hb).
      cbn [app] in H. rewrite (hds_hit p a b (c :: r) Hp Ha Hb Ec) in H. discriminate H. }
    destruct (is_sl c) eqn:Esl.
    + assert (is_path_end c = true) as Ec by (unfold is_path_end; unfold is_sl in Esl; lia).
      destruct HB as [HB|HB]; [|rewrite HB in Ec; discriminate Ec].
      rewrite (nowdl_fin_ok P _ HP). cbn [andb].
      change (@nil N) with (upe in_path_set []).
      apply (IH c [] (fin P (upe in_path_set Braw) true)); [exact Ec | reflexivity | | ].
      * apply nowdl_fin; [exact HP | intros _ _; exact HB].
      * cbn [app]. exact (hds_suffix Braw (Some p) c r H).
    + destruct (is_qh c) eqn:Eq; [apply nowdl_fin_ok; exact HP|].
      assert (is_path_end c = false) as Ec by (unfold is_path_end; unfold is_sl in Esl; unfold is_qh in Eq; lia).
      replace (upe in_path_set Braw ++ utf8_percent_encode_cp in_path_set c) with (upe in_path_set (Braw ++ [c])) by (rewrite upe_app; cbn [upe utf8_percent_encode flat_map]; rewrite app_nil_r; reflexivity).
      apply (IH p (Braw ++ [c]) P Hp); [| exact HP |].
      * unfold no_pe in *. rewrite forallb_app, Hn. cbn [forallb]. rewrite Ec. reflexivity.
      * rewrite <- app_assoc. exact H.
Qed.

(* the text the path state sees is a suffix of the text after "scheme:" *)
Lemma digits_after t : digits_of t ++ after_digits t = t.
Proof. induction t as [|c r IH]; [reflexivity|]. cbn [digits_of after_digits]. destruct (is_digit c); [|reflexivity]. cbn [app]. rewrite IH. reflexivity. Qed.

Lemma sp_path_text_suffix T : exists pre, T = pre ++ sp_path_text T.
Proof.
  unfold sp_path_text, after_at_s.
  assert (exists p0, T = p0 ++ snd (match last_at (as_part T) with Some (w, h) => (Some w, h ++ as_rest T) | None => (None, T) end)) as [p0 E0].
  { destruct (last_at (as_part T)) as [[w h]|] eqn:E; cbn [snd]; [|exists []; reflexivity].
    exists (w ++ [64]). rewrite <- (as_part_rest T) at 1. rewrite (last_at_split _ _ _ E). rewrite <- !app_assoc. reflexivity. }
  set (HR := snd (match last_at (as_part T) with Some (w, h) => (Some w, h ++ as_rest T) | None => (None, T) end)) in *.
  pose proof (hss_host_rest HR false) as E1.
  destruct (port_split (hss_rest false HR)) as [PR|] eqn:Ep.
  - destruct (hss_rest false HR) as [|c X0] eqn:EX; [discriminate Ep|]. cbn [port_split] in Ep.
    destruct (c =? 58); [|discriminate Ep]. inversion Ep; subst X0.
    exists (p0 ++ hss_host false HR ++ [c] ++ digits_of PR). rewrite E0 at 1. rewrite <- E1 at 1.
    rewrite <- (digits_after PR) at 1. rewrite <- !app_assoc. reflexivity.
  - exists (p0 ++ hss_host false HR). rewrite E0 at 1. rewrite <- E1 at 1. rewrite <- !app_assoc. reflexivity.
Qed.

Lemma sp_class_ok_nodrive_from prev R : has_drive_segment_from prev R = false -> sp_class_ok (drop_sl R) = true.
Proof.
  intros H. unfold sp_class_ok. destruct (sp_path_text_suffix (drop_sl R)) as [pre E].
  set (X := sp_path_text (drop_sl R)) in *.
  destruct (starts_aes X) eqn:Eae; [|reflexivity]. cbn [negb orb].
  assert (R = (take_sl R ++ pre) ++ X) as ER by (rewrite <- app_assoc, <- E; symmetry; apply take_drop_sl).
  destruct X as [|c r]; [reflexivity|]. cbn [path_text_s]. cbn [starts_aes] in Eae.
  destruct (is_sl c) eqn:Esl.
  - change (@nil N) with (upe in_path_set []).
    apply (spath_ok_s_raw r c [] []); [unfold is_path_end; unfold is_sl in Esl; lia | reflexivity | reflexivity|].
    cbn [app]. rewrite ER in H. exact (hds_suffix _ prev c r H).
  - cbn [spath_ok_s]. rewrite Esl.
    assert (is_qh c = true) as -> by (unfold is_aes, is_ae in Eae; unfold is_sl in Esl; unfold is_qh; lia).
    reflexivity.
Qed.

Lemma sp_class_ok_nodrive R : has_drive_segment R = false -> sp_class_ok (drop_sl R) = true.
Proof. exact (sp_class_ok_nodrive_from None R). Qed.

(* Known_C01 on a text with a special scheme *)
(* the broad predicate known_c01_broad: no drive-letter-shaped piece in the raw text *)
Lemma known_special_nodrive_broad input sch R :
  spec_scheme (spec_clean input) = Some (sch, R) -> is_special_scheme sch = true -> known_c01_broad None input = 0 ->
  list_eqb sch str_file = false /\ has_drive_segment R = false.
Proof.
  intros Hs Hsp Hk. unfold known_c01_broad in Hk. cbv zeta in Hk. rewrite cleaned_spec_clean in Hk.
  destruct (spec_scheme_some_leading _ _ _ Hs) as [E1 E2].
  rewrite E1, E2 in Hk. change s_file with str_file in Hk.
  destruct (list_eqb sch str_file); [discriminate Hk|]. cbn [orb] in Hk.
  destruct (has_drive_segment R); [discriminate Hk|]. split; reflexivity.
Qed.

Theorem special_class_covers_known_broad input sch R :
  spec_scheme (spec_clean input) = Some (sch, R) -> is_special_scheme sch = true -> known_c01_broad None input = 0 ->
  in_class_special input = true.
Proof.
  intros Hs Hsp Hk. destruct (known_special_nodrive_broad input sch R Hs Hsp Hk) as [Hf Hd].
  unfold in_class_special. rewrite Hs, Hsp, Hf. cbn [negb andb]. apply sp_class_ok_nodrive. exact Hd.
Qed.

(* every input with a special non-file scheme outside Known_C01 (the exact classes) is in the class *)
Theorem special_class_covers_known input sch R :
  spec_scheme (spec_clean input) = Some (sch, R) -> is_special_scheme sch = true -> known_c01_v1 None input = 0 ->
  in_class_special input = true.
Proof.
  intros Hs Hsp Hk. destruct (known_exact_nobase input sch R Hs Hk) as [Hf Hd]. rewrite Hsp in Hd.
  unfold in_class_special. rewrite Hs, Hsp, Hf. cbn [negb andb]. exact (k_special_class_ok R Hd).
Qed.

(* C01_statement for inputs with a special scheme and no base: outside Known_C01 the two sides agree *)
Theorem statement_special_nobase dbg hp hpo hd shp shs input sch R :
  usv_list input -> spec_scheme (spec_clean input) = Some (sch, R) -> is_special_scheme sch = true ->
  known_c01_v1 None input = 0 ->
  host_agree_sp hp hd shp shs (class_host_text_s input) ->
  agree_rel_strict dbg shs (parse_url dbg hp hpo hd None None input) (spec_basic_url_parse shp input None).
Proof.
  intros Hu Hs Hsp Hk HA. apply class_special; [exact Hu | | exact HA].
  exact (special_class_covers_known input sch R Hs Hsp Hk).
Qed.
