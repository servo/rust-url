(* Proofs/C17_Total.v - no byte-indexed slice of the data: URL header processing can panic on the
   UTF-8 encoding of a string: every slice index is the index of an ASCII byte, or the index just
   after one, and in valid UTF-8 the byte after an ASCII byte starts a character.
   Also here, because they come out of the same analysis of the slicing functions: the split at the
   first comma (find_comma_spec, find_comma_bytes), the bytes_* closure lemmas, and
   header_string_printable. *)
From RU Require Import Base.Prelude Base.Utf8 Base.Utf8Facts Gen.Tables Model.PercentEncoding Model.Mime Model.DataUrl
  Proofs.C19_Pure Proofs.C17_Tables.

(* the fact about valid UTF-8 that is needed *)
Fixpoint after_ascii_ok (l : list N) : Prop :=
  match l with
  | [] => True
  | a :: r => (a < 128 -> match r with [] => True | b :: _ => is_utf8_char_boundary b = true end)
              /\ after_ascii_ok r
  end.

Lemma after_ascii_ok_app_r p m : after_ascii_ok (p ++ m) -> after_ascii_ok m.
Proof. induction p as [|a p IH]; cbn [app after_ascii_ok]; [tauto|]. intros [_ H]. exact (IH H). Qed.

Lemma after_ascii_ok_app_l m q : after_ascii_ok (m ++ q) -> after_ascii_ok m.
Proof.
  induction m as [|a m IH]; cbn [app after_ascii_ok]; [tauto|]. intros [H1 H2]. split; [|exact (IH H2)].
  intros Ha. specialize (H1 Ha). destruct m as [|b m]; [exact I|exact H1].
Qed.

Lemma encode1_shape c : is_usv c ->
  (c < 128 /\ utf8_encode1 c = [c])
  \/ (exists b r, utf8_encode1 c = b :: r /\ 192 <= b /\ Forall (fun x => 128 <= x) r).
Proof.
  intros Hc. unfold utf8_encode1, is_usv in *.
  destruct (c <? 128) eqn:E1; [left; split; [lia|reflexivity]|]. right.
  destruct (c <? 2048) eqn:E2; [eexists; eexists; split; [reflexivity|]; split; [lia|repeat constructor; lia]|].
  destruct (c <? 65536) eqn:E3; eexists; eexists; (split; [reflexivity|]); (split; [lia|repeat constructor; lia]).
Qed.

Lemma hd_encode_boundary s : usv_list s ->
  match utf8_encode s with [] => True | b :: _ => is_utf8_char_boundary b = true end.
Proof.
  destruct s as [|c s]; [intros; exact I|]. intros H. inversion H as [|? ? Hc _]; subst.
  unfold utf8_encode. cbn [flat_map]. unfold is_utf8_char_boundary.
  destruct (encode1_shape c Hc) as [[H1 H2]|[b [r [H2 [H3 _]]]]]; rewrite H2; cbn [app]; lia.
Qed.

Lemma high_then_ok r l : Forall (fun x => 128 <= x) r -> after_ascii_ok l -> after_ascii_ok (r ++ l).
Proof.
  induction 1 as [|x r Hx _ IH]; intros Hl; cbn [app after_ascii_ok]; [exact Hl|].
  split; [intros; lia|exact (IH Hl)].
Qed.

Lemma utf8_encode_after_ascii s : usv_list s -> after_ascii_ok (utf8_encode s).
Proof.
  induction s as [|c s IH]; intros H; [exact I|]. inversion H as [|? ? Hc Hs]; subst.
  specialize (IH Hs). pose proof (hd_encode_boundary s Hs) as Hhd.
  unfold utf8_encode in *. cbn [flat_map].
  destruct (encode1_shape c Hc) as [[H1 H2]|[b [r [H2 [H3 H4]]]]]; rewrite H2; cbn [app after_ascii_ok].
  - split; [intros _; exact Hhd|exact IH].
  - split; [intros; lia|]. apply high_then_ok; assumption.
Qed.

Lemma boundary_at_ascii p a r : a < 128 -> is_char_boundary (p ++ a :: r) (length p) = true.
Proof.
  intros Ha. unfold is_char_boundary.
  destruct (length p =? 0)%nat eqn:E0; [reflexivity|].
  rewrite app_length. cbn [length].
  destruct (length p + S (length r) <=? length p)%nat eqn:E1; [apply Nat.leb_le in E1; lia|].
  rewrite app_nth2 by lia. rewrite Nat.sub_diag. cbn [nth]. unfold is_utf8_char_boundary. lia.
Qed.

Lemma boundary_after_ascii p a r :
  after_ascii_ok (p ++ a :: r) -> a < 128 -> is_char_boundary (p ++ a :: r) (S (length p)) = true.
Proof.
  intros Hok Ha. apply after_ascii_ok_app_r in Hok. cbn [after_ascii_ok] in Hok. destruct Hok as [H1 _].
  specialize (H1 Ha). unfold is_char_boundary.
  destruct (S (length p) =? 0)%nat eqn:E0; [reflexivity|].
  rewrite app_length. cbn [length].
  destruct r as [|b r].
  - cbn [length]. destruct (length p + 1 <=? S (length p))%nat eqn:E1; [|apply Nat.leb_gt in E1; lia].
    apply Nat.eqb_eq. lia.
  - cbn [length]. destruct (length p + S (S (length r)) <=? S (length p))%nat eqn:E1; [apply Nat.leb_le in E1; lia|].
    rewrite app_nth2 by lia. replace (S (length p) - length p)%nat with 1%nat by lia. cbn [nth]. exact H1.
Qed.

(* the iterators only move forward: what they return is a suffix of what they were given *)
Lemma filter_next_split l b r : filter_next l = Some (b, r) -> exists pre, l = pre ++ b :: r.
Proof.
  induction l as [|x l IH]; cbn [filter_next]; [discriminate|].
  destruct (is_skipped x).
  - intros H. destruct (IH H) as [pre Hp]. exists (x :: pre). rewrite Hp. reflexivity.
  - intros H. inversion H; subst. exists []. reflexivity.
Qed.

(* require_scheme, require_exact and require_nocase are one loop, up to the test on a byte and a literal *)
Definition require_by (test : N -> N -> bool) : list N -> list N -> option (list N) :=
  fix go lits bytes :=
    match lits with
    | [] => Some bytes
    | l :: ls => match filter_next bytes with
                 | None => None
                 | Some (b, r) => if test b l then go ls r else None
                 end
    end.

Lemma require_by_split test ls : forall l r, require_by test ls l = Some r -> exists pre, l = pre ++ r.
Proof.
  induction ls as [|x ls IH]; intros l r; cbn [require_by].
  - intros H. inversion H; subst. exists []. reflexivity.
  - destruct (filter_next l) as [[b r1]|] eqn:Ef; [|discriminate].
    destruct (test b x); [|discriminate]. intros H.
    destruct (filter_next_split _ _ _ Ef) as [p1 H1]. destruct (IH _ _ H) as [p2 H2].
    exists (p1 ++ b :: p2). subst. rewrite <- app_assoc. reflexivity.
Qed.

Lemma require_scheme_split ls l r : require_scheme ls l = Some r -> exists pre, l = pre ++ r.
Proof. exact (require_by_split byte_eq_ignore_ascii_case ls l r). Qed.
Lemma require_exact_split ls l r : require_exact ls l = Some r -> exists pre, l = pre ++ r.
Proof. exact (require_by_split N.eqb ls l r). Qed.
Lemma require_nocase_split ls l r : require_nocase ls l = Some r -> exists pre, l = pre ++ r.
Proof. exact (require_by_split byte_eq_ignore_ascii_case ls l r). Qed.

Lemma skip_while_next_split l b r : skip_while_next l = Some (b, r) -> exists pre, l = pre ++ b :: r.
Proof.
  induction l as [|x l IH]; cbn [skip_while_next]; [discriminate|].
  destruct (is_skipped x).
  - intros H. destruct (IH H) as [pre Hp]. exists (x :: pre). rewrite Hp. reflexivity.
  - destruct (x =? T_DU_B64_SKIP).
    + intros H. destruct (IH H) as [pre Hp]. exists (x :: pre). rewrite Hp. reflexivity.
    + intros H. inversion H; subst. exists []. reflexivity.
Qed.

(* drop_while / drop_while_end return a suffix / a prefix *)
Lemma drop_while_suffix f l : exists pre, l = pre ++ drop_while f l.
Proof.
  induction l as [|x l [pre IH]]; cbn [drop_while]; [exists []; reflexivity|].
  destruct (f x); [exists (x :: pre); cbn [app]; f_equal; exact IH | exists []; reflexivity].
Qed.

Lemma drop_while_end_prefix f l : exists post, l = drop_while_end f l ++ post.
Proof.
  unfold drop_while_end. destruct (drop_while_suffix f (rev l)) as [pre H].
  exists (rev pre). rewrite <- rev_app_distr, <- H, rev_involutive. reflexivity.
Qed.

(* pretend_parse_data_url *)
Definition scan_letters (letters : list N) (lt : list N) : option (list N) :=
  match require_scheme letters lt with
  | Some b1 => match filter_next b1 with
               | Some (b, r) => if b =? T_DU_COLON then Some r else None
               | None => None
               end
  | None => None
  end.


Lemma scan_letters_suffix letters lt r : scan_letters letters lt = Some r -> exists pre, lt = pre ++ r.
Proof.
  unfold scan_letters. destruct (require_scheme letters lt) as [b1|] eqn:E1; [|discriminate].
  destruct (filter_next b1) as [[b r']|] eqn:E2; [|discriminate]. destruct (b =? T_DU_COLON); [|discriminate].
  intros [= ->]. destruct (require_scheme_split _ _ _ E1) as [p1 ->]. destruct (filter_next_split _ _ _ E2) as [p2 ->].
  exists (p1 ++ p2 ++ [b]). rewrite <- !app_assoc. reflexivity.
Qed.

Lemma pretend_parse_eval input : after_ascii_ok input ->
  pretend_parse_data_url input =
  Ok (option_map (drop_while_end is_c0_or_space)
        (scan_letters T_DU_SCHEME (drop_while is_c0_or_space input))).
Proof.
  intros Hok. unfold pretend_parse_data_url, scan_letters.
  destruct (drop_while_suffix is_c0_or_space input) as [p0 H0].
  set (lt := drop_while is_c0_or_space input) in *.
  assert (Hlt : after_ascii_ok lt) by (rewrite H0 in Hok; exact (after_ascii_ok_app_r _ _ Hok)).
  clearbody lt.
  destruct (require_scheme T_DU_SCHEME lt) as [b1|] eqn:E1; [|reflexivity].
  destruct (filter_next b1) as [[b bytes]|] eqn:E2; [|reflexivity].
  destruct (b =? T_DU_COLON) eqn:E3; cbn [negb]; [|reflexivity].
  apply N.eqb_eq in E3. subst b.
  destruct (require_scheme_split _ _ _ E1) as [p1 H1]. destruct (filter_next_split _ _ _ E2) as [p2 H2].
  assert (Hsplit : lt = (p1 ++ p2) ++ T_DU_COLON :: bytes) by (rewrite H1, H2, <- app_assoc; reflexivity).
  assert (Hidx : (length lt - length bytes)%nat = S (length (p1 ++ p2))).
  { assert (Hl : length lt = (length (p1 ++ p2) + S (length bytes))%nat) by (rewrite Hsplit, app_length; reflexivity).
    lia. }
  rewrite Hidx. unfold slice_from.
  assert (Hb : is_char_boundary lt (S (length (p1 ++ p2))) = true).
  { rewrite Hsplit. apply boundary_after_ascii; [rewrite <- Hsplit; exact Hlt|reflexivity]. }
  rewrite Hb. cbn [bind option_map].
  assert (Hsk : skipn (S (length (p1 ++ p2))) lt = bytes).
  { rewrite Hsplit. replace (S (length (p1 ++ p2))) with (length ((p1 ++ p2) ++ [T_DU_COLON])) by (rewrite app_length; cbn [length]; lia).
    replace ((p1 ++ p2) ++ T_DU_COLON :: bytes) with (((p1 ++ p2) ++ [T_DU_COLON]) ++ bytes) by (rewrite <- app_assoc; reflexivity).
    rewrite skipn_app, skipn_all, Nat.sub_diag. reflexivity. }
  rewrite Hsk. reflexivity.
Qed.


Lemma pretend_parse_total input : after_ascii_ok input ->
  exists r, pretend_parse_data_url input = Ok r
            /\ match r with Some a => after_ascii_ok a | None => True end.
Proof.
  intros Hok. rewrite (pretend_parse_eval input Hok). eexists. split; [reflexivity|].
  destruct (scan_letters T_DU_SCHEME (drop_while is_c0_or_space input)) as [r|] eqn:E; [|exact I]. cbn [option_map].
  destruct (scan_letters_suffix _ _ _ E) as [p1 H1]. destruct (drop_while_suffix is_c0_or_space input) as [p0 H0].
  destruct (drop_while_end_prefix is_c0_or_space r) as [post Hp].
  apply (after_ascii_ok_app_l _ post). rewrite <- Hp. apply (after_ascii_ok_app_r p1). rewrite <- H1.
  apply (after_ascii_ok_app_r p0). rewrite <- H0. exact Hok.
Qed.

(* find_comma_before_fragment *)
Lemma fcbf_loop_total s : after_ascii_ok s -> forall rest pre, s = pre ++ rest ->
  exists r, fcbf_loop s (length pre) rest = Ok r
            /\ match r with Some (a, b) => after_ascii_ok a /\ after_ascii_ok b | None => True end.
Proof.
  intros Hok. induction rest as [|byte rest IH]; intros pre Hs; cbn [fcbf_loop].
  - exists None. split; [reflexivity|exact I].
  - destruct (byte =? T_DU_COMMA) eqn:E1.
    + apply N.eqb_eq in E1. subst byte. unfold slice_to, slice_from.
      assert (B1 : is_char_boundary s (length pre) = true) by (rewrite Hs; apply boundary_at_ascii; reflexivity).
      assert (B2 : is_char_boundary s (length pre + 1) = true).
      { rewrite Nat.add_1_r, Hs. apply boundary_after_ascii; [rewrite <- Hs; exact Hok|reflexivity]. }
      rewrite B1. cbn [bind]. rewrite B2. cbn [bind]. rewrite Nat.add_1_r. eexists. split; [reflexivity|]. cbv beta. split.
      * apply (after_ascii_ok_app_l _ (skipn (length pre) s)). rewrite firstn_skipn. exact Hok.
      * apply (after_ascii_ok_app_r (firstn (S (length pre)) s)). rewrite firstn_skipn. exact Hok.
    + destruct (byte =? T_DU_HASH); [exists None; split; [reflexivity|exact I]|].
      replace (S (length pre)) with (length (pre ++ [byte])) by (rewrite app_length; cbn [length]; lia).
      apply IH. rewrite <- app_assoc. exact Hs.
Qed.

Lemma find_comma_total s : after_ascii_ok s ->
  exists r, find_comma_before_fragment s = Ok r
            /\ match r with Some (a, b) => after_ascii_ok a /\ after_ascii_ok b | None => True end.
Proof. intros H. exact (fcbf_loop_total s H s [] eq_refl). Qed.

(* remove_base64_suffix: the index is the index of the ';' byte - no validity needed *)
Lemma remove_base64_suffix_total s : exists r, remove_base64_suffix s = Ok r.
Proof.
  unfold remove_base64_suffix.
  destruct (require_exact T_DU_B64_EXACT (rev s)) as [r1|] eqn:E1; [|eexists; reflexivity].
  destruct (require_nocase T_DU_B64_NOCASE r1) as [r2|] eqn:E2; [|eexists; reflexivity].
  destruct (skip_while_next r2) as [[b bytes]|] eqn:E3; [|eexists; reflexivity].
  destruct (b =? T_DU_B64_SEP) eqn:E4; cbn [negb]; [|eexists; reflexivity].
  apply N.eqb_eq in E4. subst b.
  destruct (require_exact_split _ _ _ E1) as [p1 H1]. destruct (require_nocase_split _ _ _ E2) as [p2 H2].
  destruct (skip_while_next_split _ _ _ E3) as [p3 H3].
  assert (Hs : s = rev bytes ++ T_DU_B64_SEP :: rev (p1 ++ p2 ++ p3)).
  { rewrite <- (rev_involutive s), H1, H2, H3. rewrite !app_assoc, rev_app_distr. cbn [rev].
    rewrite <- app_assoc. reflexivity. }
  unfold slice_to.
  assert (B : is_char_boundary s (length bytes) = true).
  { rewrite <- (rev_length bytes), Hs. apply boundary_at_ascii. reflexivity. }
  rewrite B. cbn [bind]. eexists. reflexivity.
Qed.

(* parse_header: every character of the String handed to the MIME parser is printable ASCII
   (the range written out here is C17_Main.printable) *)
Lemma percent_encode_printable b : b < 256 -> Forall (fun c => 32 <= c /\ c <= 126) (DataUrl.percent_encode b).
Proof.
  intros Hb. rewrite percent_encode_spec by exact Hb. unfold enc_byte_spec, hex_upper.
  assert (b / 16 < 16) by lia. assert (b mod 16 < 16) by lia.
  constructor; [lia|]. constructor; [destruct (b / 16 <? 10) eqn:E; lia|].
  constructor; [destruct (b mod 16 <? 10) eqn:E; lia|constructor].
Qed.

Lemma hdr_not_enc_sweep :
  all_below 256 (fun b => in_ranges b T_DU_HDR_ENC || ((32 <=? b) && (b <=? 126))) = true.
Proof. vm_compute. reflexivity. Qed.

Lemma header_loop_printable : forall l q, bytes l -> Forall (fun c => 32 <= c /\ c <= 126) (header_loop q l).
Proof.
  induction l as [|b l IH]; intros q Hb; cbn [header_loop]; [constructor|].
  inversion Hb as [|? ? Hb1 Hb2]; subst. unfold is_byte in Hb1.
  destruct (is_skipped b); [apply IH; exact Hb2|].
  destruct (in_ranges b T_DU_HDR_ENC) eqn:E1.
  { apply Forall_app. split; [apply percent_encode_printable; exact Hb1|apply IH; exact Hb2]. }
  destruct (memb b T_DU_HDR_QENC && q).
  { apply Forall_app. split; [apply percent_encode_printable; exact Hb1|apply IH; exact Hb2]. }
  assert (Hp : 32 <= b /\ b <= 126).
  { pose proof (all_below_spec 256 _ hdr_not_enc_sweep b Hb1) as Hs. cbv beta in Hs. rewrite E1 in Hs. lia. }
  destruct (b =? T_DU_HDR_QMARK).
  - constructor; [unfold T_DU_HDR_QMARK; lia|apply IH; exact Hb2].
  - constructor; [exact Hp|apply IH; exact Hb2].
Qed.

Lemma header_string_printable t : bytes t -> Forall (fun c => 32 <= c /\ c <= 126) (header_string t).
Proof.
  intros Hb. unfold header_string. apply Forall_app. split; [|apply header_loop_printable; exact Hb].
  destruct (starts_with_byte T_DU_HDR_PREFIX_IF t); [|constructor].
  unfold T_DU_HDR_PREFIX. repeat constructor; lia.
Qed.

Lemma header_string_usv m : bytes m -> usv_list (header_string m).
Proof.
  intros Hb. eapply Forall_impl; [|exact (header_string_printable m Hb)]. cbv beta. intros a Ha. unfold is_usv. lia.
Qed.

Lemma bytes_firstn n l : bytes l -> bytes (firstn n l).
Proof. intros H. rewrite <- (firstn_skipn n l) in H. apply bytes_app in H. tauto. Qed.
Lemma bytes_skipn n l : bytes l -> bytes (skipn n l).
Proof. intros H. rewrite <- (firstn_skipn n l) in H. apply bytes_app in H. tauto. Qed.
Lemma bytes_drop_while f l : bytes l -> bytes (drop_while f l).
Proof. intros H. destruct (drop_while_suffix f l) as [p Hp]. rewrite Hp in H. apply bytes_app in H. tauto. Qed.
Lemma bytes_drop_while_end f l : bytes l -> bytes (drop_while_end f l).
Proof. intros H. destruct (drop_while_end_prefix f l) as [p Hp]. rewrite Hp in H. apply bytes_app in H. tauto. Qed.

Lemma remove_base64_suffix_bytes s t : bytes s -> remove_base64_suffix s = Ok (Some t) -> bytes t.
Proof.
  intros Hb. unfold remove_base64_suffix.
  destruct (require_exact T_DU_B64_EXACT (rev s)) as [r1|]; [|discriminate].
  destruct (require_nocase T_DU_B64_NOCASE r1) as [r2|]; [|discriminate].
  destruct (skip_while_next r2) as [[b bs]|]; [|discriminate].
  destruct (negb (b =? T_DU_B64_SEP)); [discriminate|]. unfold slice_to.
  destruct (is_char_boundary s (length bs)); cbn [bind]; [|discriminate].
  intros H. inversion H; subst. apply bytes_firstn. exact Hb.
Qed.

Lemma parse_header_total h : bytes h -> exists r, parse_header h = Ok r.
Proof.
  intros Hb. unfold parse_header.
  set (trimmed := drop_while_end is_header_trim (drop_while is_header_trim h)).
  assert (Ht : bytes trimmed) by (apply bytes_drop_while_end, bytes_drop_while; exact Hb).
  destruct (remove_base64_suffix_total trimmed) as [w Hw]. rewrite Hw. cbn [bind].
  assert (Hm : bytes (match w with Some t => t | None => trimmed end)).
  { destruct w as [t|]; [exact (remove_base64_suffix_bytes _ _ Ht Hw)|exact Ht]. }
  unfold from_str.
  destruct (parse_total _ (header_string_usv _ Hm)) as [r Hr]. rewrite Hr. cbn [bind].
  eexists. reflexivity.
Qed.

(* sub-slices of a byte string are byte strings *)
Lemma pretend_parse_bytes input a : bytes input -> pretend_parse_data_url input = Ok (Some a) -> bytes a.
Proof.
  intros Hb. unfold pretend_parse_data_url.
  destruct (require_scheme T_DU_SCHEME (drop_while is_c0_or_space input)) as [b1|]; [|discriminate].
  destruct (filter_next b1) as [[b bs]|]; [|discriminate].
  destruct (negb (b =? T_DU_COLON)); [discriminate|]. unfold slice_from.
  destruct (is_char_boundary _ _); cbn [bind]; [|discriminate].
  intros H. inversion H; subst. apply bytes_drop_while_end, bytes_skipn, bytes_drop_while. exact Hb.
Qed.

(* the split find_comma_before_fragment makes: at the first ',', which comes before any '#' *)
Lemma fcbf_loop_spec s : forall rest pre h body, s = pre ++ rest -> ~ In 44 pre -> ~ In 35 pre ->
  fcbf_loop s (length pre) rest = Ok (Some (h, body)) ->
  s = h ++ 44 :: body /\ ~ In 44 h /\ ~ In 35 h.
Proof.
  induction rest as [|byte rest IH]; intros pre h body Hs Hc Hh; cbn [fcbf_loop]; [discriminate|].
  change T_DU_COMMA with 44. change T_DU_HASH with 35.
  destruct (byte =? 44) eqn:E1.
  - apply N.eqb_eq in E1. subst byte. unfold slice_to, slice_from.
    destruct (is_char_boundary s (length pre)); cbn [bind]; [|discriminate].
    destruct (is_char_boundary s (length pre + 1)); cbn [bind]; [|discriminate].
    intros H. inversion H; subst h body. clear H.
    assert (F : firstn (length pre) s = pre) by (rewrite Hs, firstn_app, Nat.sub_diag, firstn_all; cbn [firstn]; apply app_nil_r).
    assert (K : skipn (length pre + 1) s = rest).
    { rewrite Hs. replace (pre ++ 44 :: rest) with ((pre ++ [44]) ++ rest) by (rewrite <- app_assoc; reflexivity).
      replace (length pre + 1)%nat with (length (pre ++ [44])) by (rewrite app_length; reflexivity).
      rewrite skipn_app, skipn_all, Nat.sub_diag. reflexivity. }
    rewrite F, K. split; [exact Hs|split; assumption].
  - destruct (byte =? 35) eqn:E2; [discriminate|].
    replace (S (length pre)) with (length (pre ++ [byte])) by (rewrite app_length; cbn [length]; lia).
    apply IH.
    + rewrite <- app_assoc. exact Hs.
    + intros Hin. apply in_app_or in Hin. destruct Hin as [Hin|[Hin|[]]]; [exact (Hc Hin)|subst byte; discriminate].
    + intros Hin. apply in_app_or in Hin. destruct Hin as [Hin|[Hin|[]]]; [exact (Hh Hin)|subst byte; discriminate].
Qed.

Lemma find_comma_spec s h body : find_comma_before_fragment s = Ok (Some (h, body)) ->
  s = h ++ 44 :: body /\ ~ In 44 h /\ ~ In 35 h.
Proof. intros H. apply (fcbf_loop_spec s s [] h body eq_refl); [intros []|intros []|exact H]. Qed.

Lemma find_comma_bytes s a b : bytes s -> find_comma_before_fragment s = Ok (Some (a, b)) -> bytes a /\ bytes b.
Proof.
  intros Hb H. destruct (find_comma_spec _ _ _ H) as (E & _). rewrite E in Hb. apply bytes_app in Hb.
  destruct Hb as [Ha Hb]. inversion Hb; subst. split; assumption.
Qed.

(* DataUrl::process *)
Theorem process_bytes_total input : bytes input -> after_ascii_ok input -> exists r, process_bytes input = Ok r.
Proof.
  intros Hb Hok. unfold process_bytes.
  destruct (pretend_parse_total input Hok) as [[a|] [H1 H2]]; rewrite H1; cbn [bind]; [|eexists; reflexivity].
  pose proof (pretend_parse_bytes _ _ Hb H1) as Hba.
  destruct (find_comma_total a H2) as [[[h body]|] [H3 H4]]; rewrite H3; cbn [bind]; [|eexists; reflexivity].
  destruct (find_comma_bytes _ _ _ Hba H3) as [Hbh _].
  destruct (parse_header_total h Hbh) as [r Hr]. rewrite Hr. cbn [bind]. eexists. reflexivity.
Qed.

Theorem process_total s : usv_list s -> exists r, process s = Ok r.
Proof.
  intros H. apply process_bytes_total; [apply utf8_encode_bytes; exact H|apply utf8_encode_after_ascii; exact H].
Qed.
