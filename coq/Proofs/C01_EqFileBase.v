(* Proofs/C01_EqFileBase.v - third file-BASE arm of the C01 equivalence: a scheme-less, path-relative
   reference (first character not '/', '\', '?', '#'; the text does not start with a Windows drive letter) against a
   FILE base.  The Standard: no scheme state -> file state, "otherwise" arm: host, path of the base, shorten the
   path, path state.  parser.rs parse_file: shorten_path on the serialization of the base in front of its query,
   parse_path (file, has_host = true, the flag it returns is dropped), with_query_and_fragment with the offsets of
   the base.  Class: the LAST segment of the base path is not a normalized drive letter (then both "shorten" are
   removelast; parser.rs tests the whole path text against "X:" - never true - and pop_path refuses to pop a
   normalized drive letter in ANY position, F-C01-5), the model's path loop stays inside fpath_ok with has_host = true,
   and the collapse of leading slashes (parser.rs:1377) leaves the resulting list alone. *)
From Coq Require Import ZifyBool ZifyN.
From RU Require Import Base.Prelude Base.Utf8 Model.PercentEncoding Model.HostT Model.UrlRecord Model.Parser
  Model.Setters Model.WF Model.Host Model.KnownC01 Spec.Whatwg Spec.WhatwgHostParse Proofs.ListN
  Proofs.C02_Parts Proofs.C02_Opaque Proofs.C02_Path Proofs.C02_PathL1 Proofs.C03_WF Proofs.C08_Input
  Proofs.C01_EqRun Proofs.C01_EqEnc Proofs.C01_EqApi Proofs.C01_EqOpaque Proofs.C06_List Proofs.C06_WFI
  Proofs.C08_Simple Proofs.C01_EqRef Proofs.C01_EqPath Proofs.C01_EqAuthSpec Proofs.C01_EqAuthModel
  Proofs.C01_EqAuth Proofs.C01_EqClasses2 Proofs.C01_EqRel Proofs.C01_EqRelPath Proofs.C01_EqRelArms
  Proofs.C01_EqSpSpec Proofs.C01_EqSpPath Proofs.C01_EqSpBase Proofs.C01_EqAsm Proofs.C01_EqShape
  Proofs.C01_EqCover Proofs.C01_EqFileSpec Proofs.C01_EqFilePath Proofs.C01_EqFile Proofs.C01_EqFileRel2.

(* the last segment is not a normalized Windows drive letter *)
Definition last_not_nwdl (P : list (list N)) : bool :=
  match rev P with s :: _ => negb (is_normalized_windows_drive_letter s) | [] => true end.

Lemma shorten_f_last P : last_not_nwdl P = true -> shorten_f P = removelast P.
Proof.
  destruct P as [|p0 [|p1 P']]; [reflexivity | | reflexivity].
  unfold last_not_nwdl. cbn [rev app shorten_f]. intros H. apply negb_true_iff in H. rewrite H. reflexivity.
Qed.

(* specification side *)
(* the record the file state hands to the path state: scheme file, host of the base, the given segment list *)
Definition fkeep (sb : spec_url) (P : list (list N)) : spec_url :=
  mkSUrl str_file [] [] (su_host sb) None (SPList P) None None.

Lemma fkeep_rel_keep sb P : su_scheme sb = str_file -> spec_valid sb -> fkeep sb P = rel_keep sb P.
Proof.
  intros Hs [_ V]. destruct (V Hs) as (E1 & E2 & E3). unfold fkeep, rel_keep. rewrite Hs, E1, E2, E3. reflexivity.
Qed.

Section SpecFileRel.
Variable shp : bool -> list N -> option spec_host.
Variable inp : list N.                 (* the cleaned reference *)
Variable sb : spec_url.
Hypothesis Hop : has_opaque_path sb = false.
Hypothesis Hf : list_eqb (su_scheme sb) str_file = true.

Notation RunsB := (Runs shp inp (Some sb)).

(* the file state at ANY position (at the start for a scheme-less reference, behind "file:" otherwise), on a
   text that is neither a separator, '?', '#' nor a drive letter: the path state on the base's segments *)
Theorem runs_file_state_rel_path pre u c t : inp = pre ++ c :: t -> (u = empty_url \/ u = u_file0) ->
  is_sl c = false -> (c =? 63) = false -> (c =? 35) = false ->
  starts_with_windows_drive_letter (c :: t) = false -> last_not_nwdl (path_segments sb) = true ->
  RunsB (at_pos StFile pre [] false false false u)
        (BDone (file_tail (fkeep sb (removelast (path_segments sb)))
                          (spath_f (c :: t) (removelast (path_segments sb)) []))).
Proof.
  intros Hin Hu Esl E63 E35 Hw Hl.
  assert (c :: t <> []) as Hne by discriminate.
  assert (su_path sb = SPList (path_segments sb)) as HP.
  { unfold path_segments. unfold has_opaque_path in Hop. destruct (su_path sb); [discriminate Hop | reflexivity]. }
  unfold is_sl in Esl. apply orb_false_iff in Esl. destruct Esl as [E47 E92].
  eapply (runs_step_stay shp inp (Some sb) StFile pre (c :: t)) with (st' := StPath) (buf' := [])
    (u' := fkeep sb (removelast (path_segments sb))); [exact Hin | exact Hne | |].
  - rewrite (step_unfold shp inp (Some sb) _ pre (c :: t)) by exact Hin. cbn zeta. cbn [hd_error tl].
    unfold st_file, base_is_file. rewrite Hf. cbn [cis]. rewrite E47, E92, E63, E35. cbn [orb].
    rewrite Hw. cbn [negb].
    unfold shorten_path.
    assert (forall v, v = empty_url \/ v = u_file0 ->
              set_query (set_query (set_path (set_host (set_host (set_scheme v str_file) (Some SEmpty)) (su_host sb)) (su_path sb))
                                   (su_query sb)) None
              = mkSUrl str_file [] [] (su_host sb) None (su_path sb) None None) as Ev.
    { intros v [->| ->]; reflexivity. }
    cbn [m_url at_pos]. rewrite (Ev u Hu). cbn [su_path su_scheme]. rewrite HP.
    replace (list_eqb str_file str_file) with true by reflexivity. cbn [andb].
    destruct (path_segments sb) as [|p0 [|p1 P']] eqn:EP.
    + reflexivity.
    + unfold last_not_nwdl in Hl. cbn [rev app] in Hl. apply negb_true_iff in Hl. rewrite Hl. reflexivity.
    + reflexivity.
  - exact (runs_path_f shp inp (Some sb) (c :: t) pre [] false false false (fkeep sb (removelast (path_segments sb)))
             (removelast (path_segments sb)) Hin eq_refl eq_refl).
Qed.

Theorem runs_file_rel_path c t : inp = c :: t -> spec_scheme inp = None ->
  is_sl c = false -> (c =? 63) = false -> (c =? 35) = false ->
  starts_with_windows_drive_letter inp = false -> last_not_nwdl (path_segments sb) = true ->
  RunsB m0 (BDone (file_tail (fkeep sb (removelast (path_segments sb)))
                             (spath_f inp (removelast (path_segments sb)) []))).
Proof.
  intros Hin Hs Esl E63 E35 Hw Hl.
  assert (inp <> []) as Hne by (rewrite Hin; discriminate).
  apply runs_no_scheme; [exact Hs|].
  eapply (runs_step_stay shp inp (Some sb) StNoScheme [] inp) with (st' := StFile) (buf' := []);
    [reflexivity | exact Hne | |].
  { rewrite (step_unfold shp inp (Some sb) _ [] inp) by reflexivity. cbn zeta.
    unfold st_no_scheme. rewrite Hop, Hf. cbn [andb negb]. reflexivity. }
  replace (spath_f inp (removelast (path_segments sb)) []) with (spath_f (c :: t) (removelast (path_segments sb)) [])
    by (rewrite <- Hin; reflexivity).
  rewrite Hin in Hw.
  exact (runs_file_state_rel_path [] empty_url c t Hin (or_introl eq_refl) Esl E63 E35 Hw Hl).
Qed.

End SpecFileRel.

(* model side *)
Lemma swdl_segment_spec l : starts_with_wdl_segment l = starts_with_windows_drive_letter (ntnl l).
Proof.
  unfold starts_with_wdl_segment.
  destruct (ntnl l) as [|a t1] eqn:E1.
  { rewrite (inp_next_none l E1). reflexivity. }
  destruct (inp_next_some l a t1 E1) as (r1 & En1 & Hr1 & _). rewrite En1.
  destruct t1 as [|b t2].
  { rewrite (inp_next_none r1 Hr1). reflexivity. }
  destruct (inp_next_some r1 b t2 Hr1) as (r2 & En2 & Hr2 & _). rewrite En2.
  cbn [starts_with_windows_drive_letter is_windows_drive_letter].
  destruct t2 as [|c t3].
  - rewrite (inp_next_none r2 Hr2). reflexivity.
  - destruct (inp_next_some r2 c t3 Hr2) as (r3 & En3 & _ & _). rewrite En3. unfold is_path_end.
    destruct (is_alpha a && ((b =? 58) || (b =? 124))); [|reflexivity]. cbn [andb]. lia.
Qed.

Lemma nwdl_no_lead x : is_normalized_wdl (47 :: x) = false.
Proof. apply nwdl_head_not_alpha. reflexivity. Qed.

(* shorten_path on "pre" + the serialized segment list P: the last segment goes, its '/' stays *)
Lemma shorten_path_segments_f pre P : forallb no_slash P = true -> P <> [] -> last_not_nwdl P = true ->
  Parser.shorten_path STFile (nlen pre) (pre ++ flat P) = POk (Bs pre (removelast P)).
Proof.
  intros Hns Hne Hl. unfold Parser.shorten_path, pop_path, flat.
  destruct (rev P) as [|x r] eqn:Er.
  { exfalso. apply Hne. rewrite <- (rev_involutive P), Er. reflexivity. }
  assert (P = rev r ++ [x]) as EP by (rewrite <- (rev_involutive P), Er; reflexivity).
  unfold last_not_nwdl in Hl. rewrite Er in Hl. apply negb_true_iff in Hl. rewrite <- is_nwdl_agree in Hl.
  set (P' := rev r) in *. rewrite EP in *. rewrite removelast_last.
  rewrite forallb_app in Hns. apply andb_true_iff in Hns. destruct Hns as [_ Hx].
  cbn [forallb] in Hx. rewrite andb_true_r in Hx.
  rewrite flat_map_snoc. set (X := flat_map (fun s => 47 :: s) P').
  replace (nlen (pre ++ X ++ 47 :: x) =? nlen pre) with false by (symmetry; apply N.eqb_neq; lenl).
  rewrite nskipn_app_len.
  assert (is_normalized_wdl (X ++ 47 :: x) = false) as ->.
  { destruct P' as [|q Q]; [apply nwdl_no_lead|]. unfold X. cbn [flat_map app]. apply nwdl_no_lead. }
  cbn [st_is_file andb].
  replace (nlen pre <? nlen (pre ++ X ++ 47 :: x)) with true by (symmetry; apply N.ltb_lt; lenl).
  rewrite (rfind_app_last 47 X x) by exact Hx.
  replace (pre ++ X ++ 47 :: x) with (((pre ++ X) ++ [47]) ++ x) by (rewrite <- !app_assoc; reflexivity).
  replace (nlen pre + nlen X + 1) with (nlen ((pre ++ X) ++ [47])) by lenl.
  rewrite nskipn_app_len, Hl. unfold truncate. rewrite nfirstn_app_len.
  f_equal. rewrite <- (app_nil_r (Bs pre P')). rewrite C01_EqFile.Bs_flat. unfold flat. rewrite flat_map_snoc.
  fold X. rewrite <- !app_assoc. reflexivity.
Qed.

(* the path loop of a file URL started behind "pre" + the segments P0 + '/' *)
Lemma loop_from_segments_f dbg pre r P0 : usv_list r -> forallb no_slash P0 = true ->
  fpath_ok true (ntnl r) P0 [] = true ->
  forallb C06_WFI.no_qh (flat P0) = true ->
  let P1 := fst (spath_f (ntnl r) P0 []) in
  strip_stable P1 = true ->
  parse_path dbg CUrlParser STFile true (nlen pre) (Bs pre P0) r = POk (pre ++ flat P1, true, cbb_rest r)
  /\ snd (spath_f (ntnl r) P0 []) = ntnl (cbb_rest r)
  /\ forallb C06_WFI.no_qh (flat P1) = true
  /\ forallb no_slash P1 = true /\ P1 <> [].
Proof.
  intros Hur Hns Hok Hqh P1 Hst.
  assert (pend_ok []) as Hp0 by (split; [constructor | reflexivity]).
  destruct (loop_exact_f pre dbg r P0 [] [] true Hur Hp0 Hns eq_refl Hok) as (segs & last & Hloop & Hfst & Hsnd).
  cbn [app rev utf8_encode flat_map encode] in Hfst, Hsnd.
  rewrite app_nil_r in Hloop.
  assert (forallb no_slash P1 = true) as Hns1 by (unfold P1; apply spath_f_no_slash; [exact Hns | reflexivity]).
  split; [|split; [exact Hsnd|split; [|split]]].
  - unfold parse_path. rewrite Hloop. rewrite C01_EqFile.Bs_flat, <- Hfst. fold P1.
    rewrite fixup_flat by exact Hns1. apply strip_f_stable in Hst. rewrite Hst. reflexivity.
  - apply flat_no_qh. unfold P1. apply spath_f_no_qh; [exact (segs_no_qh_of_flat P0 Hqh) | reflexivity].
  - exact Hns1.
  - unfold P1. rewrite Hfst. intros K. apply app_eq_nil in K. destruct K as [_ K]. discriminate K.
Qed.

Lemma wqf_plain_f se ue hs he hi po ps s rest : se + 3 <= ps ->
  UrlRecord.starts_with s_css (nskipn se s) = true ->
  with_query_and_fragment None CUrlParser STFile se ue hs he hi po ps s rest
  = (' (s2, qs, fs) <~ parse_query_and_fragment None CUrlParser STFile se s rest ;;
     POk (mkUrl s2 se ue hs he hi po ps qs fs)).
Proof. exact (wqf_plain_st None STFile se ue hs he hi po ps s rest). Qed.

(* the result record is related to the Standard's *)
Section TransportF.
Variable dbg : bool.
Variable shs : spec_host -> list N.

Theorem related_auth_path_any b sb h Pn q f :
  related dbg shs b sb -> su_host sb = Some h ->
  forallb C06_WFI.no_qh (flat_map (fun s => 47 :: s) Pn) = true -> Pn <> [] ->
  match q with Some Q => forallb no_h Q = true | None => True end ->
  related dbg shs (auth_path_url b (flat_map (fun s => 47 :: s) Pn) q f) (rel_url sb Pn q f).
Proof. exact (related_auth_path_all dbg shs b sb h Pn q f). Qed.

End TransportF.

(* the arm: parse_path + with_query_and_fragment with the offsets of the base *)
Section ArmsF.
Variable dbg : bool.
Variable shs : spec_host -> list N.

Definition arm_expr_f (b : url) (s0 r : list N) : pres url :=
  ' (s, _, rem) <~ parse_path dbg CUrlParser STFile true (path_start b) s0 r ;;
  with_query_and_fragment None CUrlParser STFile (scheme_end b) (username_end b) (host_start b) (host_end b)
                          (hosti b) (port b) (path_start b) s rem.

Lemma file_tail_rel_url sb P0 t l : su_scheme sb = str_file -> spec_valid sb ->
  snd (spath_f t P0 []) = ntnl l ->
  match l with [] => True | c :: _ => C02_Parts.is_qh c = true /\ is_tnl c = false end ->
  file_tail (fkeep sb P0) (spath_f t P0 []) = rel_url sb (fst (spath_f t P0 [])) (pqf_q STFile l) (pqf_f l).
Proof.
  intros Hs V Hsnd Hh. unfold file_tail. rewrite Hsnd, (fkeep_rel_keep sb P0 Hs V).
  set (P1 := fst (spath_f t P0 [])).
  assert (set_path (rel_keep sb P0) (SPList P1) = rel_keep sb P1) as -> by reflexivity.
  rewrite (tail_url_st STFile); [reflexivity | | reflexivity | reflexivity | exact Hh].
  unfold is_special, rel_keep. cbn [su_scheme]. rewrite Hs. reflexivity.
Qed.

Theorem path_arm_related_f b sb h P0 r :
  related dbg shs b sb -> has_opaque_path sb = false -> su_scheme sb = str_file -> su_host sb = Some h ->
  usv_list r -> forallb no_slash P0 = true -> forallb C06_WFI.no_qh (flat P0) = true ->
  fpath_ok true (ntnl r) P0 [] = true -> strip_stable (fst (spath_f (ntnl r) P0 [])) = true ->
  let su := file_tail (fkeep sb P0) (spath_f (ntnl r) P0 []) in
  exists u, oob (U32_MAX_P < nlen (ser u)) (arm_expr_f b (Bs (nfirstn (path_start b) (ser b)) P0) r) u
            /\ related dbg shs u su /\ spec_base_ok su = true.
Proof.
  intros R Hop Hs Eh Hur Hns0 Hqh0 Hok Hst su.
  pose proof (rel_wf _ _ _ _ R) as W. pose proof (path_start_le_len b W) as Lps.
  set (pre := nfirstn (path_start b) (ser b)).
  assert (nlen pre = path_start b) as Lpre by (apply nlen_nfirstn; exact Lps).
  destruct (loop_from_segments_f dbg pre r P0 Hur Hns0 Hok Hqh0 Hst) as (Hpp & Hsnd & Hqh1 & Hns1 & Hne1).
  rewrite Lpre in Hpp.
  set (P1 := fst (spath_f (ntnl r) P0 [])) in *.
  set (T := flat P1) in *.
  set (rest := cbb_rest r) in *.
  set (q := pqf_q STFile rest). set (f := pqf_f rest).
  assert (usv_list rest) as Hurest by (apply usv_cbb_rest; exact Hur).
  assert (su = rel_url sb P1 q f) as ES.
  { unfold su. rewrite (file_tail_rel_url sb P0 (ntnl r) rest Hs (rel_valid _ _ _ _ R) Hsnd (cbb_rest_head r)). reflexivity. }
  rewrite ES.
  assert (spec_base_ok (rel_url sb P1 q f) = true) as HBok.
  { unfold spec_base_ok, rel_url. cbn [su_scheme Whatwg.path_segments su_path]. rewrite Hs, Hns1. reflexivity. }
  assert (match ntnl rest with [] => True | c :: _ => is_qh c = true end) as Hhead.
  { pose proof (cbb_rest_head r) as Hh. fold rest in Hh. destruct rest as [|d dr]; [exact I|]. destruct Hh as [Hh1 Hh2].
    rewrite ntnl_cons by exact Hh2. exact Hh1. }
  assert (has_authority_b b = true) as Ha by (rewrite (related_host_iff dbg shs b sb R), Eh; reflexivity).
  pose proof (wf_auth_facts b W Ha) as F.
  pose proof (af_ue F) as B1. pose proof (af_hs F) as B2. pose proof (af_he F) as B3. pose proof (af_ps F) as B4.
  unfold arm_expr_f. fold pre. rewrite Hpp. cbn [pbind].
  exists (auth_path_url b T q f). split; [|split; [|exact HBok]].
  - rewrite wqf_plain_f; [|lia|].
    2:{ unfold has_authority_b in Ha. rewrite <- Ha.
        apply (pre_starts_with (path_start b)); [|change (nlen s_css) with 3; lia].
        apply agree_pre_nfirstn. exact Lps. }
    eapply oob_bind.
    { apply (pqf_oob None (U32_MAX_P < nlen (ser (auth_path_url b T q f)))); [exact Hurest | reflexivity | exact Hhead |].
      fold q f. intros Hlt. exact Hlt. }
    fold q f. right. reflexivity.
  - apply (related_auth_path_any dbg shs b sb h P1 q f R); [exact Eh | exact Hqh1 | exact Hne1 |].
    pose proof (pqf_q_clean_f rest Hurest) as Hq. fold q in Hq. destruct q as [Q|]; [|exact I].
    exact (clean_query_no_h STFile Q Hq).
Qed.

End ArmsF.

(* recogniser on the Standard's side: the base is a file URL with a host (true of every parse result), its path is
   not empty and does not END in a normalized drive letter; the cleaned reference has no scheme, does not start with
   '/', '\', '?', '#' nor with a Windows drive letter; the path loop on it, started on the base path without its last
   segment, stays inside fpath_ok (has_host = true: no ".." on a drive-letter-shaped last segment, no drive letter
   becoming the first segment, no first segment going on after a drive-letter prefix) and the collapse of leading
   slashes leaves the resulting list alone *)
Definition file_base_ok (sb : spec_url) : bool :=
  negb (has_opaque_path sb) && list_eqb (su_scheme sb) str_file && opt_is_some (su_host sb)
  && negb (is_nil (Whatwg.path_segments sb)) && last_not_nwdl (Whatwg.path_segments sb).

Definition in_class_file_rel_path (sb : spec_url) (input : list N) : bool :=
  file_base_ok sb
  && match spec_scheme (spec_clean input) with None => true | Some _ => false end
  && match spec_clean input with
     | c :: t => negb (is_sl c) && negb (c =? 63) && negb (c =? 35)
                 && negb (starts_with_windows_drive_letter (c :: t))
                 && fpath_ok true (c :: t) (removelast (Whatwg.path_segments sb)) []
                 && strip_stable (fst (spath_f (c :: t) (removelast (Whatwg.path_segments sb)) []))
     | [] => false
     end.

Lemma file_base_ok_facts sb : file_base_ok sb = true ->
  has_opaque_path sb = false /\ su_scheme sb = str_file /\ (exists h, su_host sb = Some h)
  /\ Whatwg.path_segments sb <> [] /\ last_not_nwdl (Whatwg.path_segments sb) = true.
Proof.
  unfold file_base_ok. intros H. apply andb_true_iff in H. destruct H as [H H5]. apply andb_true_iff in H. destruct H as [H H4].
  apply andb_true_iff in H. destruct H as [H H3]. apply andb_true_iff in H. destruct H as [H1 H2].
  apply negb_true_iff in H1. apply list_eqb_spec in H2.
  repeat split; try assumption.
  - destruct (su_host sb) as [h|]; [exists h; reflexivity | discriminate H3].
  - intros E. rewrite E in H4. discriminate H4.
Qed.

Section RelClassF.
Variable dbg : bool.
Variable hp hpo : list N -> result host.
Variable hd : host -> list N.
Variable shp : bool -> list N -> option spec_host.
Variable shs : spec_host -> list N.

Theorem class_file_rel_path input b sb : usv_list input -> related dbg shs b sb ->
  spec_base_ok sb = true -> in_class_file_rel_path sb input = true ->
  exists su, spec_basic_url_parse shp input (Some sb) = BDone su /\ spec_base_ok su = true
    /\ agree_rel_strict dbg shs (parse_url dbg hp hpo hd None (Some b) input) (BDone su).
Proof.
  intros Hu R Hbok Hc. unfold in_class_file_rel_path in Hc.
  apply andb_true_iff in Hbok. destruct Hbok as [Hcan HnsP].
  apply andb_true_iff in Hc. destruct Hc as [Hc Hok]. apply andb_true_iff in Hc. destruct Hc as [Hb Hsch].
  destruct (file_base_ok_facts sb Hb) as (Hop & Hsf & (h & Eh) & HneP & Hlast).
  assert (list_eqb (su_scheme sb) str_file = true) as Hf by (apply list_eqb_spec; exact Hsf).
  assert (spec_scheme (spec_clean input) = None) as Hs by (destruct (spec_scheme (spec_clean input)); [discriminate | reflexivity]).
  destruct (spec_clean input) as [|c t] eqn:Ecl; [discriminate Hok|].
  apply andb_true_iff in Hok. destruct Hok as [Hok Hstab]. apply andb_true_iff in Hok. destruct Hok as [Hok Hfok].
  apply andb_true_iff in Hok. destruct Hok as [Hok Hw]. apply andb_true_iff in Hok. destruct Hok as [Hok E35].
  apply andb_true_iff in Hok. destruct Hok as [Esl E63]. apply negb_true_iff in Esl, E63, E35, Hw.
  set (P := Whatwg.path_segments sb) in *.
  set (su := file_tail (fkeep sb (removelast P)) (spath_f (c :: t) (removelast P) [])).
  exists su.
  assert (spec_basic_url_parse shp input (Some sb) = BDone su) as HS.
  { apply spec_parse_of_runs. rewrite Ecl.
    exact (runs_file_rel_path shp (c :: t) sb Hop Hf c t eq_refl Hs Esl E63 E35 Hw Hlast). }
  split; [exact HS|].
  (* the model *)
  pose proof (rel_wf _ _ _ _ R) as W. pose proof (path_start_le_len b W) as Lps.
  destruct (base_path_facts dbg shs b sb R Hop) as (Lpre & Ebq & HqhP). fold P (flat P) in Ebq, HqhP.
  set (pre := nfirstn (path_start b) (ser b)) in *.
  rewrite spec_clean_is_ntnl_trim in Ecl. set (l0 := input_new_trim_c0 input) in *.
  assert (usv_list l0) as Hul0 by (apply usv_trim; exact Hu).
  destruct (inp_next_some l0 c t Ecl) as (r1 & En & Er1 & _).
  assert (scheme_type_of (b_scheme b) = STFile) as Hstb by (rewrite (rel_sch _ _ _ _ R), Hsf; reflexivity).
  assert (parse_url dbg hp hpo hd None (Some b) input = arm_expr_f dbg b (Bs pre (removelast P)) l0) as Epu.
  { rewrite (parse_url_file_rel dbg hp hpo hd b input c t (related_not_cbb dbg shs b sb R Hop) Hstb Ecl Hs E35).
    fold l0. unfold parse_file, inp_split_first. rewrite En. cbv iota beta.
    rewrite is_sl_model, Esl, E63, E35. rewrite swdl_segment_spec, Ecl, Hw. cbn [negb].
    rewrite Ebq, <- Lpre.
    rewrite (shorten_path_segments_f pre P HnsP HneP Hlast). cbn [pbind]. unfold arm_expr_f. rewrite <- Lpre. reflexivity. }
  rewrite <- Ecl in Hfok, Hstab.
  destruct (path_arm_related_f dbg shs b sb h (removelast P) l0 R Hop Hsf Eh Hul0
              (no_slash_removelast P HnsP) (removelast_prefix_no_qh_s P HqhP) Hfok Hstab) as (u & HO & Ru & Hbo).
  fold pre in HO. rewrite Ecl in Ru, Hbo. fold su in Ru, Hbo. split; [exact Hbo|]. rewrite Epu. exact (oob_agree dbg shs _ u _ HO Ru).
Qed.

End RelClassF.

(* the class theorem in the shape of the assembly: agree_good, full_base result *)
Lemma file_tail_shape_ok u r : su_scheme u = str_file -> base_shape_ok (file_tail u r) = true.
Proof.
  intros Hs. unfold file_tail. rewrite (shape_ok_of_shape _ _ (tail_url_shape _ _)). unfold base_shape_ok.
  cbn [su_scheme set_path]. rewrite Hs. reflexivity.
Qed.

Section RelClassFGood.
Variable dbg : bool.
Variable hp hpo : list N -> result host.
Variable hd : host -> list N.
Variable shp : bool -> list N -> option spec_host.
Variable shs : spec_host -> list N.

Theorem class_file_rel_path_good input b sb : usv_list input -> related dbg shs b sb ->
  spec_base_ok sb = true -> in_class_file_rel_path sb input = true ->
  agree_good dbg shs (parse_url dbg hp hpo hd None (Some b) input) (spec_basic_url_parse shp input (Some sb))
  /\ (forall su u, spec_basic_url_parse shp input (Some sb) = BDone su -> parse_url dbg hp hpo hd None (Some b) input = POk u ->
        full_base dbg shs u su).
Proof.
  intros Hu R Hbok Hc.
  destruct (class_file_rel_path dbg hp hpo hd shp shs input b sb Hu R Hbok Hc) as (su & HS & Hok & HA).
  assert (base_shape_ok su = true) as Hshape.
  { unfold in_class_file_rel_path in Hc. apply andb_true_iff in Hc. destruct Hc as [Hc Hok']. apply andb_true_iff in Hc. destruct Hc as [Hb Hsch].
    destruct (file_base_ok_facts sb Hb) as (Hop & Hsf & _ & _ & Hlast).
    assert (list_eqb (su_scheme sb) str_file = true) as Hf by (apply list_eqb_spec; exact Hsf).
    assert (spec_scheme (spec_clean input) = None) as Hs by (destruct (spec_scheme (spec_clean input)); [discriminate | reflexivity]).
    destruct (spec_clean input) as [|c t] eqn:Ecl; [discriminate Hok'|].
    apply andb_true_iff in Hok'. destruct Hok' as [Hok' _]. apply andb_true_iff in Hok'. destruct Hok' as [Hok' _].
    apply andb_true_iff in Hok'. destruct Hok' as [Hok' Hw]. apply andb_true_iff in Hok'. destruct Hok' as [Hok' E35].
    apply andb_true_iff in Hok'. destruct Hok' as [Esl E63]. apply negb_true_iff in Esl, E63, E35, Hw.
    assert (spec_basic_url_parse shp input (Some sb)
            = BDone (file_tail (fkeep sb (removelast (Whatwg.path_segments sb)))
                               (spath_f (c :: t) (removelast (Whatwg.path_segments sb)) []))) as HS2.
    { apply spec_parse_of_runs. rewrite Ecl.
      exact (runs_file_rel_path shp (c :: t) sb Hop Hf c t eq_refl Hs Esl E63 E35 Hw Hlast). }
    rewrite HS in HS2. inversion HS2. apply file_tail_shape_ok. reflexivity. }
  assert (agree_good dbg shs (parse_url dbg hp hpo hd None (Some b) input) (spec_basic_url_parse shp input (Some sb))) as G.
  { rewrite HS. apply agree_good_intro; [exact HA|]. intros su' E. inversion E; subst su'. exact Hok. }
  split; [exact G|]. intros su' u HS' HM. rewrite HS' in G. rewrite HS in HS'. inversion HS'; subst su'.
  split; [exact (agree_good_chain dbg shs _ su u G HM) | exact Hshape].
Qed.

End RelClassFGood.

(* the class theorem has no hypothesis on the host functions (no host is parsed: the host of the base is kept);
   instance for the parser model with the host model plugged in, bases in full_base *)
Theorem class_file_rel_path_model dbg idna : forall input b sb,
  usv_list input -> full_base dbg spec_host_serializer b sb -> in_class_file_rel_path sb input = true ->
  agree_good dbg spec_host_serializer
    (parse_url dbg (host_parse idna) host_parse_opaque host_display None (Some b) input)
    (spec_basic_url_parse (spec_host_parser idna) input (Some sb))
  /\ (forall su u, spec_basic_url_parse (spec_host_parser idna) input (Some sb) = BDone su ->
        parse_url dbg (host_parse idna) host_parse_opaque host_display None (Some b) input = POk u ->
        full_base dbg spec_host_serializer u su).
Proof.
  intros input b sb Hu [[R Hok] _] Hc. exact (class_file_rel_path_good dbg _ _ _ _ _ input b sb Hu R Hok Hc).
Qed.

(* non-vacuity: against the parse result of file://h/tmp/x the references  y ,  a/../b?q#f ,  ../../../up  are in the
   class (and in class 1 of Known_C01, which does not take this arm out); both sides give file://h/tmp/y, file://h/tmp/b?q#f,
   file://h/up with the same ten API strings *)
Example class_file_rel_path_nonvacuous :
  let idna := id_idna in
  let P base i := parse_url true (host_parse idna) host_parse_opaque host_display None base i in
  let S sbase i := spec_basic_url_parse (spec_host_parser idna) i sbase in
  let i1 := [121] in
  let i2 := [97;47;46;46;47;98;63;113;35;102] in
  let i3 := [46;46;47;46;46;47;46;46;47;117;112] in
  match P None file_base_text, S None file_base_text with
  | POk b, BDone sb =>
      let ok i h := in_class_file_rel_path sb i = true /\ known_c01 (Some b) i = 1
                    /\ match P (Some b) i, S (Some sb) i with
                       | POk u, BDone su => q_href u = h
                                            /\ api_of_model true u = Some (spec_api_list spec_host_serializer su)
                       | _, _ => False end in
      ok i1 [102;105;108;101;58;47;47;104;47;116;109;112;47;121]
      /\ ok i2 [102;105;108;101;58;47;47;104;47;116;109;112;47;98;63;113;35;102]
      /\ ok i3 [102;105;108;101;58;47;47;104;47;117;112]
  | _, _ => False
  end.
Proof. vm_compute. repeat split. Qed.

(* the exclusion "the base path does not end in a normalized drive letter" is necessary: against the parse result of
   file:///a/C: (the two sides agree on it) the reference  x  gives file:///a/x in the Standard (shorten: the path has
   two segments) but file:///a/C:x in parser.rs (pop_path refuses to pop "C:", and the path loop appends to the
   segment that was left without its '/') - the mechanism of F-C01-5 through shorten_path on the base *)
Example class_file_rel_path_exclusion_necessary :
  let idna := id_idna in
  let P base i := parse_url true (host_parse idna) host_parse_opaque host_display None base i in
  let S sbase i := spec_basic_url_parse (spec_host_parser idna) i sbase in
  let bt := [102;105;108;101;58;47;47;47;97;47;67;58] in
  match P None bt, S None bt with
  | POk b, BDone sb =>
      api_of_model true b = Some (spec_api_list spec_host_serializer sb)
      /\ file_base_ok sb = false /\ known_c01 (Some b) [120] = 1
      /\ match P (Some b) [120], S (Some sb) [120] with
         | POk u, BDone su => q_href u = [102;105;108;101;58;47;47;47;97;47;67;58;120]
                              /\ get_href spec_host_serializer su = [102;105;108;101;58;47;47;47;97;47;120]
         | _, _ => False end
  | _, _ => False
  end.
Proof. vm_compute. repeat split. Qed.
