(* Proofs/C02_Reach9.v - histories with every join that involves a file record and with the setters of
   C02_FileOps / C02_FileSetPath on file records.
   ReachC8 = the histories of C02_Reach8.ReachC7 and
     - EVERY join against a file record of the history (RC8_join_file: no-scheme and file-scheme references through
       C02_FileJoin.join_file_base - path-relative, path-absolute, two-slash, drive-letter, empty / query / fragment -
       and references with another scheme through join_abs_Canon_g), the result outside Known_file_drive,
     - file-scheme references that do not consult the base, against ANY Reachable4 base (RC8_join_file_abs: the base is
       not a file URL, or two slashes follow "file:"),
     - on file records (RC8_step_file, file_op8): besides the query / fragment setters, the port and credential setters
       of both APIs (refused), Url::set_scheme and quirks protocol (file + host -> special scheme; refused without a
       host), Url::set_host(None); (RC8_step_file_path, file_path_op) quirks pathname with every argument and
       Url::set_path when the record has a host or the argument starts with a slash, the result outside Known_file_drive.
   Every ReachC8 record is CanonF, hence a fixpoint of re-parsing, well-formed and ASCII; ReachC7 is inside ReachC8
   (ReachC7_C8), ReachC8 inside Reachable4 (ReachC8_Reachable4). *)
From RU Require Import Proofs.C15_Ser.
From Coq Require Import String.
From RU Require Import Base.Prelude Proofs.ListN Model.HostT Model.Host Model.UrlRecord Model.Parser Model.Setters Model.WF
  Model.QueryPairs Proofs.C02_Parts Proofs.C02_Opaque Proofs.C02_Path Proofs.C02_Reach Proofs.C02_AuthParts
  Proofs.C02_AuthMain Proofs.C02_Hist Proofs.C02_SetQF Proofs.C02_JoinTail Proofs.C02_SetHostCanon Proofs.C02_Reach4
  Proofs.C02_Stmt4 Proofs.C02_JoinAbs Proofs.C02_JoinPath Proofs.C02_Reach6 Proofs.C02_Ovr Proofs.C02_Reach7
  Proofs.C02_File Proofs.C02_FileCanon Proofs.C02_FileParse Proofs.C02_FileSet Proofs.C02_Reach8 Proofs.C02_FileOps
  Proofs.C02_FileJoin Proofs.C02_FileSetPath.
Open Scope N_scope.
Open Scope list_scope.

Definition file_op8 (o : op) : bool :=
  file_tail_op o || file_refused_op o
  || match o with OSetScheme _ | OQProtocol _ | OSetHost None => true | _ => false end.

(* the path setters covered on file records: quirks pathname with every argument; Url::set_path when the record has a
   host or the argument starts with a slash *)
Definition file_path_op (u : url) (o : op) : bool :=
  match o with
  | OSetPath x => has_host u || lead_slash x
  | OQPathname _ => true
  | _ => false
  end.

Section ReachC8.
Variable dbg : bool.
Variable hp hpo : list N -> result host.
Variable hd : host -> list N.
Hypothesis HOK : HostOK2 hp hpo hd.
Hypothesis HNE : host_nonempty hp hpo.
Hypothesis HW : host_no_wdl hp hd.

Let HRT : HostRT hp hpo hd := proj1 HOK.
Let HAb : host_above hp hpo hd := proj1 (proj2 HOK).

Notation CanonF := (CanonF hp hpo hd).
Notation ReachC7 := (ReachC7 dbg hp hpo hd).

Inductive ReachC8 : url -> Prop :=
| RC8_parse ovr input u :
    usv_list input -> parse_url dbg hp hpo hd ovr None input = POk u ->
    Known_file_drive u = false -> ReachC8 u
| RC8_join_rel ovr b input u :
    ReachC8 b -> is_file b = false -> usv_list input -> rel_ref input = true ->
    parse_url dbg hp hpo hd ovr (Some b) input = POk u -> ReachC8 u
| RC8_join_scheme ovr b input u :
    ReachC8 b -> is_file b = false -> usv_list input -> nonfile_input input = true ->
    parse_url dbg hp hpo hd ovr (Some b) input = POk u -> ReachC8 u
| RC8_join_abs_any ovr b input u :
    Reachable4 dbg hp hpo hd b -> usv_list input -> abs_ref b input = true ->
    parse_url dbg hp hpo hd ovr (Some b) input = POk u -> ReachC8 u
| RC8_join_file_abs ovr b input u :          (* file references that do not consult the base, any base *)
    Reachable4 dbg hp hpo hd b -> usv_list input -> file_abs_ref b input = true ->
    parse_url dbg hp hpo hd ovr (Some b) input = POk u -> Known_file_drive u = false -> ReachC8 u
| RC8_join_file ovr b input u :              (* EVERY reference against a file base *)
    ReachC8 b -> is_file b = true -> usv_list input ->
    parse_url dbg hp hpo hd ovr (Some b) input = POk u -> Known_file_drive u = false -> ReachC8 u
| RC8_step u o u' :
    ReachC8 u -> is_file u = false -> op_args_ok o -> known_step3 dbg hp hpo hd u o = false ->
    apply_op dbg hp hpo hd u o = Some u' -> nlen (ser u') <= U32_MAX_P -> ReachC8 u'
| RC8_step_file u o u' :                     (* the operations file_op8 on a file record *)
    ReachC8 u -> is_file u = true -> file_op8 o = true -> op_args_ok o ->
    apply_op dbg hp hpo hd u o = Some u' -> nlen (ser u') <= U32_MAX_P -> ReachC8 u'
| RC8_step_file_path u o u' :                (* the path setters on a file record *)
    ReachC8 u -> is_file u = true -> file_path_op u o = true -> op_args_ok o ->
    apply_op dbg hp hpo hd u o = Some u' -> nlen (ser u') <= U32_MAX_P -> Known_file_drive u' = false -> ReachC8 u'
| RC8_qpm u ops u' :
    ReachC8 u -> Forall op_ok ops -> query_pairs_session dbg u ops = Some u' ->
    nlen (ser u') <= U32_MAX_P -> ReachC8 u'.

Lemma file_base_abs_ref b input : FileCanon hp hd b -> nonfile_input input = true -> abs_ref b input = true.
Proof.
  intros [ho segs last q0 f0 K] Hn.
  destruct (file_pre_sch hd ho (path_text segs last)) as [S1 S2].
  assert (b_scheme (file_curl hd ho (path_text segs last) q0 f0) = s_file) as Hbs
    by (unfold file_curl; exact (b_scheme_qf _ _ _ _ _ _ _ _ q0 f0 s_file S1 S2)).
  unfold nonfile_input in Hn. unfold abs_ref.
  destruct (parse_scheme CUrlParser (input_new_trim_c0 input)) as [[sch rem]|]; [|discriminate Hn].
  destruct (scheme_type_of sch) eqn:Est; [discriminate Hn | | reflexivity].
  rewrite Hbs. destruct (list_eqb s_file sch) eqn:El; [|rewrite andb_false_r; reflexivity].
  apply list_eqb_spec in El. subst sch. vm_compute in Est. discriminate Est.
Qed.

(* every join against a canonical file base, whatever the reference *)
Theorem join_file_any ovr b input u : FileCanon hp hd b -> usv_list input ->
  parse_url dbg hp hpo hd ovr (Some b) input = POk u -> Known_file_drive u = false -> CanonF u.
Proof using HOK HNE HW HRT HAb.
  intros Cb Hu Hp Hk. destruct (nonfile_input input) eqn:En.
  - left. exact (join_abs_Canon_g dbg hp hpo hd HRT HAb ovr b input u Hu (file_base_abs_ref b input Cb En) Hp).
  - right. exact (join_file_base dbg hp hpo hd HRT HAb (proj1 HNE) HW ovr b input u Cb Hu En Hp Hk).
Qed.

Theorem step_file8_CanonF u o u' : FileCanon hp hd u -> file_op8 o = true -> op_args_ok o ->
  apply_op dbg hp hpo hd u o = Some u' -> nlen (ser u') <= U32_MAX_P -> CanonF u'.
Proof using HOK HRT.
  intros C Ht Ha Ho Hb. destruct (file_tail_op o) eqn:E1.
  { right. exact (step_file_CanonF dbg hp hpo hd HOK u o u' C E1 Ha Ho Hb). }
  destruct (file_refused_op o) eqn:E2.
  { right. rewrite (file_refused dbg hp hpo hd u o u' C E2 Ho). exact C. }
  unfold file_op8 in Ht. rewrite E1, E2 in Ht. cbn [orb] in Ht.
  destruct o; try discriminate Ht; cbn [apply_op] in Ho.
  - destruct h; [discriminate Ht|].
    destruct (set_host dbg hp hpo hd u None) as [[u1 s1]|] eqn:E; cbn [option_map fst] in Ho; [|discriminate Ho].
    inversion Ho; subst u1. right. exact (set_host_none_File dbg hp hpo hd u u' s1 C E).
  - destruct (set_scheme dbg u s) as [[u1 s1]|] eqn:E; cbn [option_map fst] in Ho; [|discriminate Ho].
    inversion Ho; subst u1.
    destruct (set_scheme_File dbg hp hpo hd u s u' s1 C E Hb) as [-> | C']; [right; exact C | left; exact C'].
  - unfold q_set_protocol in Ho.
    destruct (set_scheme dbg u _) as [[u1 s1]|] eqn:E; cbn [option_map fst] in Ho; [|discriminate Ho].
    inversion Ho; subst u1.
    destruct (set_scheme_File dbg hp hpo hd u _ u' s1 C E Hb) as [-> | C']; [right; exact C | left; exact C'].
Qed.

Theorem step_file_path_File u o u' : FileCanon hp hd u -> file_path_op u o = true -> op_args_ok o ->
  apply_op dbg hp hpo hd u o = Some u' -> nlen (ser u') <= U32_MAX_P -> Known_file_drive u' = false -> FileCanon hp hd u'.
Proof.
  intros C Ht Ha Ho Hb Hk. destruct o; try discriminate Ht; cbn [apply_op op_args_ok file_path_op] in *.
  - exact (set_path_File dbg hp hpo hd u p u' C Ha Ht Ho Hb Hk).
  - exact (q_set_pathname_File dbg hp hpo hd u s u' C Ha Ho Hb Hk).
Qed.

Theorem ReachC8_CanonF u : ReachC8 u -> CanonF u.
Proof using HOK HNE HW HRT HAb.
  induction 1 as [ovr input u Hu Hp Hk | ovr b input u Hr IH Hf Hu Ht Hp | ovr b input u Hr IH Hf Hu Ht Hp
                 | ovr b input u Hr Hu Ht Hp | ovr b input u Hr Hu Ht Hp Hk | ovr b input u Hr IH Hf Hu Hp Hk
                 | u o u' Hr IH Hf Ha Hk Ho Hb | u o u' Hr IH Hf Ht Ha Ho Hb | u o u' Hr IH Hf Ht Ha Ho Hb Hk'
                 | u ops u' Hr IH Hops Hs Hb].
  - exact (parse_CanonF dbg hp hpo hd HOK HNE HW ovr input u Hu Hp Hk).
  - left. exact (join_rel_Canon_g dbg hp hpo hd HRT HAb ovr b input u (CanonF_nonfile hp hpo hd b IH Hf) Hu Ht Hp).
  - left. exact (join_nonfile_Canon_g dbg hp hpo hd HRT HAb ovr b input u (CanonF_nonfile hp hpo hd b IH Hf) Hu Ht Hp).
  - left. exact (join_abs_Canon_g dbg hp hpo hd HRT HAb ovr b input u Hu Ht Hp).
  - rewrite (join_file_abs_eq dbg hp hpo hd ovr b input Ht) in Hp.
    exact (parse_CanonF dbg hp hpo hd HOK HNE HW ovr input u Hu Hp Hk).
  - exact (join_file_any ovr b input u (CanonF_file hp hpo hd b IH Hf) Hu Hp Hk).
  - left. exact (canon_step_all dbg hp hpo hd HOK HNE u o u' (CanonF_nonfile hp hpo hd u IH Hf) Ha Hk Ho Hb).
  - exact (step_file8_CanonF u o u' (CanonF_file hp hpo hd u IH Hf) Ht Ha Ho Hb).
  - right. exact (step_file_path_File u o u' (CanonF_file hp hpo hd u IH Hf) Ht Ha Ho Hb Hk').
  - exact (qpm_CanonF dbg hp hpo hd HOK u ops u' IH Hops Hs Hb).
Qed.

Theorem reach_partial8 u : ReachC8 u ->
  Fixpoint_of_reparse dbg hp hpo hd u /\ wf_b u = true /\ ascii (ser u).
Proof using HOK HNE HW HRT HAb. intros H. exact (CanonF_fixpoint dbg hp hpo hd HOK u (ReachC8_CanonF u H)). Qed.

Lemma file_has_authority_b ho T q f : has_authority_b (file_curl hd ho T q f) = true.
Proof.
  unfold has_authority_b, file_curl, qf_url. cbn [scheme_end ser].
  unfold file_pre, file_front, s_file_css, s_css. rewrite <- !app_assoc. change 4 with (nlen s_file).
  rewrite nskipn_app_len. reflexivity.
Qed.

Lemma file_not_leads_ss ho segs last q f : file_ok hp hd ho segs last q f ->
  path_leads_ss (file_curl hd ho (path_text segs last) q f) = false.
Proof.
  intros K. unfold path_leads_ss, file_curl, qf_url. cbn [path_start ser]. unfold file_pre.
  rewrite <- app_assoc. rewrite nskipn_app_len. unfold path_text. cbn [app].
  pose proof (fseg_first_not_slash segs last (fk_segs _ _ _ _ _ _ _ K) (fk_last _ _ _ _ _ _ _ K) (fk_first _ _ _ _ _ _ _ K)) as Hf.
  destruct (segs_text segs ++ last) as [|c r].
  - cbn [app]. pose proof (qf_text_qh q f) as Hq. destruct (qf_text q f) as [|d r']; [reflexivity|].
    destruct Hq as [Hq _]. unfold s_ss. cbn [starts_with]. replace (47 =? 47) with true by reflexivity.
    replace (47 =? d) with false by (unfold is_qh in Hq; lia). reflexivity.
  - cbn [app]. unfold s_ss. cbn [starts_with]. replace (47 =? 47) with true by reflexivity.
    replace (47 =? c) with false by lia. reflexivity.
Qed.

Lemma file_not_cbb ho T q f : is_cbb (file_curl hd ho T q f) = false.
Proof.
  unfold is_cbb, file_curl, qf_url. cbn [scheme_end ser].
  unfold file_pre, file_front, s_file_css, s_css. rewrite <- !app_assoc.
  change (s_file ++ [58; 47; 47] ++ fhost_text hd ho ++ T ++ qf_text q f)
    with ((s_file ++ [58]) ++ 47 :: 47 :: fhost_text hd ho ++ T ++ qf_text q f).
  change (4 + 1) with (nlen (s_file ++ [58])). rewrite nskipn_app_len. reflexivity.
Qed.

(* on a canonical file record the only steps in a known class are the host setters of Known_F_C02_4 *)
Lemma file_step_unknown u o : FileCanon hp hd u -> Known_F_C02_4 u o = false -> known_step3 dbg hp hpo hd u o = false.
Proof.
  (* besides the hypothesis on Known_F_C02_4, three facts about a canonical file record settle every operation: it has
     an authority, it is not cannot-be-a-base, its path does not start with "//" *)
  intros C H4. pose proof (FileCanon_is_file hp hd u C) as Hf. destruct C as [ho segs last q f K].
  unfold known_step3, known_step2, known_step. rewrite H4.
  unfold Known_F_C03_5, Known_F_C02_3, Known_F_C02_2, Known_F_C02_8, Known_F_C02_9, Known_F_C02_10, has_marker.
  rewrite file_has_authority_b. cbn [negb andb orb].
  destruct o as [| | | |[h|]|h| | | | | | | |s|s| | | |]; cbn [Known_F_C02_4] in H4; try (rewrite Hf in H4; discriminate H4);
    rewrite ?file_not_cbb, ?(file_not_leads_ss ho segs last q f K), ?andb_false_r; reflexivity.
Qed.

Lemma file_op8_unknown u o : FileCanon hp hd u -> file_op8 o = true -> known_step3 dbg hp hpo hd u o = false.
Proof.
  intros C Ht. apply (file_step_unknown u o C). destruct o; try discriminate Ht; try reflexivity.
  destruct h; [discriminate Ht | reflexivity].
Qed.

Lemma file_path_op_unknown u o : FileCanon hp hd u -> file_path_op u o = true -> known_step3 dbg hp hpo hd u o = false.
Proof. intros C Ht. apply (file_step_unknown u o C). destruct o; try discriminate Ht; reflexivity. Qed.

Theorem ReachC8_Reachable4 u : ReachC8 u -> Reachable4 dbg hp hpo hd u.
Proof using HOK HNE HW HRT HAb.
  assert (nd : forall v, ReachC8 v -> Known_file_drive v = false)
    by (intros v Hv; exact (CanonF_not_drive hp hpo hd v (ReachC8_CanonF v Hv))).
  intros H. pose proof (nd u H) as Hd. revert Hd.
  induction H as [ovr input u Hu Hp Hk | ovr b input u Hr IH Hf Hu Ht Hp | ovr b input u Hr IH Hf Hu Ht Hp
                 | ovr b input u Hr Hu Ht Hp | ovr b input u Hr Hu Ht Hp Hk | ovr b input u Hr IH Hf Hu Hp Hk
                 | u o u' Hr IH Hf Ha Hk Ho Hb | u o u' Hr IH Hf Ht Ha Ho Hb | u o u' Hr IH Hf Ht Ha Ho Hb Hk'
                 | u ops u' Hr IH Hops Hs Hb]; intros Hd.
  - exact (R4_parse dbg hp hpo hd ovr input u Hu Hp Hk).
  - exact (R4_join dbg hp hpo hd ovr b input u (IH (nd b Hr)) Hu Hp Hd).
  - exact (R4_join dbg hp hpo hd ovr b input u (IH (nd b Hr)) Hu Hp Hd).
  - exact (R4_join dbg hp hpo hd ovr b input u Hr Hu Hp Hd).
  - exact (R4_join dbg hp hpo hd ovr b input u Hr Hu Hp Hd).
  - exact (R4_join dbg hp hpo hd ovr b input u (IH (nd b Hr)) Hu Hp Hd).
  - exact (R4_step dbg hp hpo hd u o u' (IH (nd u Hr)) Ha Hk Ho Hd).
  - exact (R4_step dbg hp hpo hd u o u' (IH (nd u Hr)) Ha
             (file_op8_unknown u o (CanonF_file hp hpo hd u (ReachC8_CanonF u Hr) Hf) Ht) Ho Hd).
  - exact (R4_step dbg hp hpo hd u o u' (IH (nd u Hr)) Ha
             (file_path_op_unknown u o (CanonF_file hp hpo hd u (ReachC8_CanonF u Hr) Hf) Ht) Ho Hd).
  - exact (R4_qpm dbg hp hpo hd u ops u' (IH (nd u Hr)) Hops Hs Hd).
Qed.

Lemma nonfile_base_file_abs b input : is_file b = false -> file_input input = true -> file_abs_ref b input = true.
Proof.
  unfold is_file, scheme_of, file_input, file_abs_ref, b_scheme. intros Hb Hf.
  destruct (parse_scheme CUrlParser (input_new_trim_c0 input)) as [[sch rem]|]; [|discriminate Hf].
  destruct (scheme_type_of sch); try discriminate Hf. rewrite Hb. reflexivity.
Qed.

Theorem ReachC8_join_closed ovr b input u : ReachC8 b -> usv_list input ->
  parse_url dbg hp hpo hd ovr (Some b) input = POk u -> Known_file_drive u = false -> ReachC8 u.
Proof using HOK HNE HW HRT HAb.
  intros Hr Hu Hp Hk. destruct (is_file b) eqn:Hf.
  - exact (RC8_join_file ovr b input u Hr Hf Hu Hp Hk).
  - destruct (ref_trichotomy input) as [Ht | [Ht | Ht]].
    + exact (RC8_join_rel ovr b input u Hr Hf Hu Ht Hp).
    + exact (RC8_join_scheme ovr b input u Hr Hf Hu Ht Hp).
    + exact (RC8_join_file_abs ovr b input u (ReachC8_Reachable4 b Hr) Hu (nonfile_base_file_abs b input Hf Ht) Hp Hk).
Qed.

Theorem ReachC7_C8 u : ReachC7 u -> ReachC8 u.
Proof using HOK HNE HW HRT HAb.
  intros H. induction H as [ovr input u Hu Hp Hk | ovr b input u Hr IH Hf Hu Ht Hp | ovr b input u Hr IH Hf Hu Ht Hp
                 | ovr b input u Hr Hu Ht Hp | ovr b input u Hr IH Hf Hu Ht Hp
                 | u o u' Hr IH Hf Ha Hk Ho Hb | u o u' Hr IH Hf Ht Ha Ho Hb | u ops u' Hr IH Hops Hs Hb].
  - exact (RC8_parse ovr input u Hu Hp Hk).
  - exact (RC8_join_rel ovr b input u IH Hf Hu Ht Hp).
  - exact (RC8_join_scheme ovr b input u IH Hf Hu Ht Hp).
  - exact (RC8_join_abs_any ovr b input u Hr Hu Ht Hp).
  - apply (RC8_join_file ovr b input u IH Hf Hu Hp).
    apply (CanonF_not_drive hp hpo hd). right.
    exact (join_tail_File dbg hp hpo hd ovr b input u
             (CanonF_file hp hpo hd b (ReachC7_CanonF dbg hp hpo hd HOK HNE HW b Hr) Hf) Hu Ht Hp).
  - exact (RC8_step u o u' IH Hf Ha Hk Ho Hb).
  - apply (RC8_step_file u o u' IH Hf); try assumption. unfold file_op8. rewrite Ht. reflexivity.
  - exact (RC8_qpm u ops u' IH Hops Hs Hb).
Qed.
End ReachC8.

(* non-vacuity, on the host model (idna_clean) *)
Definition m_is (o : option url) (expect : string) : bool :=
  match o with Some u => list_eqb (ser u) (B expect) && m_fix u && negb (Known_file_drive u) | None => false end.

(* joins against a file base: path-relative with dot segments, path-absolute (the host is kept), two slashes (a new
   host), "file:" + relative path, two back-slashes and "localhost" (no host remains), a non-file reference; a file
   reference against a non-file base; on file records: the port and credential setters refuse, set_scheme gives a
   special record (with a host) or refuses (without), set_host(None), the path setters *)
Example reach8_example :
  m_is (m_join "file://h.x/a/b?q#f" "c/../d e") "file://h.x/a/d%20e" = true
  /\ m_is (m_join "file://h.x/a/b?q#f" "/x/./y?k") "file://h.x/x/y?k" = true
  /\ m_is (m_join "file://h.x/a/b" "//g.y/z") "file://g.y/z" = true
  /\ m_is (m_join "file://h.x/a/b" "file:c#g") "file://h.x/a/c#g" = true
  /\ m_is (m_join "file://h.x/a/b" "\\localhost\z") "file:///z" = true
  /\ m_is (m_join "file://h.x/a/b" "https://g.y/z") "https://g.y/z" = true
  /\ m_is (m_join "http://h.x/a/b" "file:c") "file:///c" = true
  /\ m_is (m_join "http://h.x/a/b" "file://g.y/c") "file://g.y/c" = true
  /\ m_is (m_hist "file://h.x/a" [OSetPort (Some 8080); OSetUsername (B "u"); OSetPassword (Some (B "p")); OQPort (B "1")]) "file://h.x/a" = true
  /\ m_is (m_hist "file://h.x/a b?q#f" [OSetScheme (B "https")]) "https://h.x/a%20b?q#f" = true
  /\ m_is (m_hist "file:///a" [OSetScheme (B "http"); OQProtocol (B "ws:")]) "file:///a" = true
  /\ m_is (m_hist "file://h.x/a?q" [OSetHost None]) "file:///a?q" = true
  /\ m_is (m_hist "file://h.x/x" [OSetPath (B "a/../b?c")]) "file://h.x/b%3Fc" = true
  /\ m_is (m_hist "file:///x" [OSetPath (B "\\a/../b")]) "file:///b" = true
  /\ m_is (m_hist "file:///x" [OQPathname (B "a/../b#c")]) "file:///b%23c" = true
  /\ file_abs_ref (file_curl host_display None (B "/a") None None) (B "file://g.y/c")
     && file_path_op (file_curl host_display None (B "/x") None None) (OSetPath (B "\\a/../b"))
     && file_op8 (OSetHost None) && file_op8 (OQProtocol (B "ws:")) && file_op8 (OSetPort (Some 8080)) = true.
Proof. vm_compute. repeat split. Qed.

(* why the premise of file_path_op for Url::set_path: on a file record without a host an argument without a leading
   slash is merged differently - "a/../b" keeps "a" (the serialization "file://" ends with '/', parse_path_start adds
   none, the first segment starts AT path_start and pop_path finds no slash in front of it); a fixpoint all the same *)
Example file_set_path_no_slash :
  m_is (m_hist "file:///x" [OSetPath (B "a/../b")]) "file:///a/b" = true
  /\ m_is (m_hist "file:///x" [OSetPath (B "/a/../b")]) "file:///b" = true
  /\ file_path_op (file_curl host_display None (B "/x") None None) (OSetPath (B "a/../b")) = false.
Proof. vm_compute. repeat split. Qed.
