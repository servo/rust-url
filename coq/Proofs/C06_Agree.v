(* Proofs/C06_Agree.v - parser agreement, state by state: for each setter, the parser state that reads the
   component (context UrlParser), run on the ARGUMENT text standing at that position and followed by the
   rest of the input X, writes the very bytes the setter wrote (C06_get), and hands X on.
   Arguments are free of the delimiters that end the component in the parser (listed per lemma). *)
From RU Require Import Base.Prelude Base.Utf8 Base.Utf8Facts Model.AsciiSet Gen.Tables Model.PercentEncoding
  Model.HostT Model.UrlRecord Model.Parser Model.Setters Model.WF
  Proofs.ListN Proofs.C14_Set Proofs.C14_Enc Proofs.C14_Views Proofs.C02_Enc Proofs.C02_Parts
  Proofs.C02_Opaque Proofs.C02_Path Proofs.C02_PathL1 Proofs.C02_Reach Proofs.C16_RT Proofs.C02_AuthParts Proofs.C06_WFI Proofs.C06_FragQuery.
From RU Require Import Proofs.Decimal.

(* the decimal text of any u16, followed by a path delimiter or nothing: the port, None if it is the default *)
Lemma parse_port_decimal dflt p X : p <= 65535 -> pe_ok X ->
  parse_port CUrlParser dflt (decimal p ++ X) = POk (if opt_eqb (Some p) dflt then None else Some p, X).
Proof.
  intros Hp HX. unfold parse_port. destruct (port_rt p Hp) as [H1 H2].
  rewrite (port_loop_digits _ _ _ _ _ X H2 H1 HX). cbn [pbind negb andb orb]. reflexivity.
Qed.

Definition uenc (t : list N) : list N := encode T_USERINFO (utf8_encode t).

Lemma uenc_app a b : uenc (a ++ b) = uenc a ++ uenc b.
Proof. unfold uenc, encode. rewrite utf8_encode_app. apply flat_map_app. Qed.

(* the second pass over raw text: every character is percent-encoded on its own; a ':' is only special
   while no password has started *)
Lemma uloop_raw s : forall X m ser uend pw un, usv_list s ->
  forallb (fun c => negb (is_tnl c)) s = true ->
  (uend = None -> forallb (fun c => negb (c =? 58)) s = true) ->
  userinfo_loop (s ++ X) (nlen s + m) ser uend pw un
  = userinfo_loop X m (ser ++ uenc s) uend pw (match s with [] => un | _ => if pw then un else true end).
Proof.
  induction s as [|c s IH]; intros X m ser uend pw un Hu Ht H58.
  - cbn [app]. rewrite nlen_nil, N.add_0_l. unfold uenc. cbn. rewrite app_nil_r. reflexivity.
  - apply usv_cons in Hu. destruct Hu as [Hc Hs]. cbn [forallb] in Ht. apply andb_true_iff in Ht. destruct Ht as [Htc Hts].
    apply negb_true_iff in Htc.
    cbn [app]. rewrite uloop_cons by (rewrite ?nlen_cons; lia || exact Htc).
    assert ((c =? 58) && (match uend with None => true | Some _ => false end) = false) as E.
    { destruct uend; [apply andb_false_r|]. specialize (H58 eq_refl). cbn [forallb] in H58.
      apply andb_true_iff in H58. destruct H58 as [H _]. apply negb_true_iff in H. rewrite H. reflexivity. }
    rewrite E. rewrite push_encoded_eq by (constructor; [exact Hc | constructor]).
    replace (nlen (c :: s) + m - 1) with (nlen s + m) by (rewrite nlen_cons; lia).
    rewrite IH; [| exact Hs | exact Hts |].
    + change (c :: s) with ([c] ++ s). rewrite uenc_app. rewrite <- app_assoc. f_equal.
      destruct s; [reflexivity|]. destruct pw; reflexivity.
    + intros Eu. specialize (H58 Eu). cbn [forallb] in H58. apply andb_true_iff in H58. exact (proj2 H58).
Qed.

Section Userinfo.
Variable st : scheme_type.
Notation sp := (st_is_special st).

Definition pw_text (pw : option (list N)) : list N := match pw with Some p => 58 :: p | None => [] end.

(* a raw USERNAME x in front of an (already canonical) optional password: x free of TAB/LF/CR, ':', '@' and
   the authority delimiters; not both empty *)
Theorem parse_userinfo_raw_user ser x pw X : usv_list x ->
  forallb (fun c => plainc sp c && negb (c =? 58)) x = true ->
  match pw with Some p => clean T_USERINFO p = true /\ p <> [] | None => x <> [] end ->
  (forall count last, scan_last_at sp X count last = last) ->
  nlen ser + nlen (uenc x) <= U32_MAX_P ->
  parse_userinfo st ser (x ++ pw_text pw ++ 64 :: X)
  = POk (ser ++ uenc x ++ pw_text pw ++ [64], nlen ser + nlen (uenc x), X).
Proof.
  intros Hu Hx Hpw HX Hb.
  assert (forallb (plainc sp) x = true /\ forallb (fun c => negb (is_tnl c)) x = true
          /\ forallb (fun c => negb (c =? 58)) x = true) as (Hpl & Htn & H58).
  { splits; apply (forallb_impl (fun c => plainc sp c && negb (c =? 58))); try exact Hx; intros c Hc;
      apply andb_true_iff in Hc; destruct Hc as [H1 H2]; try assumption.
    unfold plainc in H1. apply andb_true_iff in H1. destruct H1 as [H1 _]. apply andb_true_iff in H1. exact (proj1 H1). }
  unfold parse_userinfo. destruct pw as [p|]; cbn [pw_text app].
  - destruct Hpw as [Hp Hne].
    replace (x ++ 58 :: p ++ 64 :: X) with ((x ++ 58 :: p) ++ 64 :: X) by (rewrite <- app_assoc; reflexivity).
    assert (forallb (plainc sp) (x ++ 58 :: p) = true) as Hpl2.
    { rewrite forallb_app. cbn [forallb]. rewrite Hpl, (clean_ui_plain sp p Hp).
      unfold plainc, auth_delim. destruct sp; reflexivity. }
    rewrite scan_plain by exact Hpl2. rewrite scan_at, HX. rewrite N.add_0_l.
    assert (nlen (x ++ 58 :: p) = nlen x + (1 + nlen p)) as El by (rewrite nlen_app, nlen_cons; reflexivity).
    assert (0 < nlen p) as Hpp by (destruct p; [contradiction | rewrite nlen_cons; lia]).
    destruct (nlen (x ++ 58 :: p)) as [|pn] eqn:En; [lia|].
    rewrite El. rewrite <- app_assoc. rewrite uloop_raw; [| exact Hu | exact Htn | intros _; exact H58].
    cbn [app]. rewrite uloop_cons by (lia || reflexivity). replace ((58 =? 58) && true) with true by reflexivity.
    rewrite nlen_app. rewrite to_u32_ok by lia. cbn [pbind].
    replace (1 + nlen p - 1) with (nlen p + 0) by lia. replace (0 <? nlen p + 0) with true by lia.
    rewrite uloop_clean by exact Hp. rewrite uloop_0. cbn [pbind]. rewrite orb_true_r.
    rewrite <- ?app_assoc. cbn [app]. rewrite <- ?app_assoc. reflexivity.
  - rewrite scan_plain by exact Hpl. rewrite scan_at, HX. rewrite N.add_0_l.
    destruct (nlen x) as [|pn] eqn:En; [destruct x; [contradiction | rewrite nlen_cons in En; lia]|].
    rewrite <- En. replace (nlen x) with (nlen x + 0) at 1 by lia.
    rewrite uloop_raw; [| exact Hu | exact Htn | intros _; exact H58]. rewrite uloop_0. cbn [pbind].
    rewrite nlen_app. rewrite to_u32_ok by lia. cbn [pbind].
    destruct x; [contradiction|]. cbn [orb]. rewrite <- app_assoc. reflexivity.
Qed.

(* a raw PASSWORD y behind an (already canonical) username: y non-empty, free of TAB/LF/CR, '@' and the
   authority delimiters (a ':' inside a password is an ordinary character: both sides write %3A) *)
Theorem parse_userinfo_raw_pw ser u0 y X : usv_list y -> clean T_USERINFO u0 = true ->
  forallb (plainc sp) y = true -> y <> [] ->
  (forall count last, scan_last_at sp X count last = last) ->
  nlen ser + nlen u0 <= U32_MAX_P ->
  parse_userinfo st ser (u0 ++ 58 :: y ++ 64 :: X)
  = POk (ser ++ u0 ++ 58 :: uenc y ++ [64], nlen ser + nlen u0, X).
Proof.
  intros Hu Hu0 Hy Hne HX Hb.
  assert (forallb (fun c => negb (is_tnl c)) y = true) as Htn.
  { apply (forallb_impl (plainc sp)); [|exact Hy]. intros c Hc. unfold plainc in Hc.
    apply andb_true_iff in Hc. destruct Hc as [H1 _]. apply andb_true_iff in H1. exact (proj1 H1). }
  unfold parse_userinfo.
  replace (u0 ++ 58 :: y ++ 64 :: X) with ((u0 ++ 58 :: y) ++ 64 :: X) by (rewrite <- app_assoc; reflexivity).
  assert (forallb (plainc sp) (u0 ++ 58 :: y) = true) as Hpl2.
  { rewrite forallb_app. cbn [forallb]. rewrite Hy, (clean_ui_plain sp u0 Hu0).
    unfold plainc, auth_delim. destruct sp; reflexivity. }
  rewrite scan_plain by exact Hpl2. rewrite scan_at, HX. rewrite N.add_0_l.
  assert (nlen (u0 ++ 58 :: y) = nlen u0 + (1 + nlen y)) as El by (rewrite nlen_app, nlen_cons; reflexivity).
  assert (0 < nlen y) as Hpp by (destruct y; [contradiction | rewrite nlen_cons; lia]).
  destruct (nlen (u0 ++ 58 :: y)) as [|pn] eqn:En; [lia|].
  rewrite El. rewrite <- app_assoc. rewrite uloop_clean by exact Hu0.
  cbn [app]. rewrite uloop_cons by (lia || reflexivity). replace ((58 =? 58) && true) with true by reflexivity.
  rewrite nlen_app. rewrite to_u32_ok by lia. cbn [pbind].
  replace (1 + nlen y - 1) with (nlen y + 0) by lia. replace (0 <? nlen y + 0) with true by lia.
  rewrite uloop_raw; [| exact Hu | exact Htn | discriminate]. rewrite uloop_0. cbn [pbind]. rewrite orb_true_r.
  rewrite <- ?app_assoc. cbn [app]. rewrite <- ?app_assoc. reflexivity.
Qed.

End Userinfo.

(* a host argument the scan of parse_host takes whole: no TAB/LF/CR, none of ':' '/' '?' '#' (and '\' for a
   special scheme), no bracket *)
Definition hostc (sp : bool) (c : N) : bool :=
  negb (is_tnl c) && negb (host_stop sp false c) && negb (c =? 91) && negb (c =? 93).
(* what may follow: nothing, or a character at which the scan stops *)
Definition host_tail (sp : bool) (X : list N) : Prop :=
  match X with [] => True | c :: _ => is_tnl c = false /\ host_stop sp false c = true end.

Lemma host_scan_raw sp t : forall acc X, forallb (hostc sp) t = true -> host_tail sp X ->
  host_scan sp false acc (t ++ X) = (rev acc ++ t, X).
Proof.
  induction t as [|c t IH]; intros acc X Ht HX.
  - cbn [app]. rewrite app_nil_r. destruct X as [|c r]; [reflexivity|]. destruct HX as [H1 H2].
    cbn [host_scan]. rewrite H1. fold (host_stop sp false c). rewrite H2. reflexivity.
  - cbn [forallb] in Ht. apply andb_true_iff in Ht. destruct Ht as [Hc Ht]. unfold hostc in Hc.
    apply andb_true_iff in Hc. destruct Hc as [Hc H93]. apply andb_true_iff in Hc. destruct Hc as [Hc H91].
    apply andb_true_iff in Hc. destruct Hc as [H1 H2]. apply negb_true_iff in H1, H2, H91, H93.
    cbn [app host_scan]. rewrite H1. fold (host_stop sp false c). rewrite H2, H91, H93.
    rewrite IH by assumption. cbn [rev]. rewrite <- app_assoc. reflexivity.
Qed.

Theorem parse_host_raw hp hpo st t X : st_is_file st = false ->
  forallb (hostc (st_is_special st)) t = true -> host_tail (st_is_special st) X ->
  parse_host hp hpo st (t ++ X)
  = if scheme_type_eqb st STSpecialNotFile && (match t with [] => true | _ => false end) then PErr EmptyHost
    else host <~ of_result ((if st_is_special st then hp else hpo) t) ;; POk (host, X).
Proof.
  intros Hnf Ht HX. unfold parse_host. rewrite Hnf. rewrite (host_scan_raw _ t [] X Ht HX). cbn [rev app].
  destruct (scheme_type_eqb st STSpecialNotFile && match t with [] => true | _ => false end); [reflexivity|].
  destruct (st_is_special st); reflexivity.
Qed.

Lemma find_byte_aux_none b l : forall i, forallb (fun c => negb (c =? b)) l = true -> find_byte_aux b l i = None.
Proof.
  induction l as [|x r IH]; intros i H; [reflexivity|]. cbn [forallb] in H. apply andb_true_iff in H. destruct H as [H1 H2].
  apply negb_true_iff in H1. cbn [find_byte_aux]. rewrite H1. apply IH. exact H2.
Qed.

(* the path states in the contexts UrlParser and Setter differ only at '?' and '#': on an argument free of
   both, followed by nothing or by '?' / '#', the parser context does what the setter context does on the
   argument alone, and hands the rest on *)
Definition qh_tail (X : list N) : Prop := match X with [] => True | c :: _ => ((c =? 63) || (c =? 35)) = true end.

Definition with_rem {A B} (X : list N) (r : pres (A * B * list N)) : pres (A * B * list N) :=
  match r with POk (s, h, _) => POk (s, h, X) | PErr e => PErr e | PPanic => PPanic end.

Lemma qh_not_tnl c : ((c =? 63) || (c =? 35)) = true -> is_tnl c = false.
Proof. unfold is_tnl. lia. Qed.

Lemma path_loop_ctx dbg st ps p : forall X ser seg pend hh, forallb no_qh p = true -> qh_tail X ->
  parse_path_loop dbg CUrlParser st ps (p ++ X) ser seg pend hh
  = with_rem X (parse_path_loop dbg CSetter st ps p ser seg pend hh).
Proof.
  induction p as [|c p IH]; intros X ser seg pend hh Hp HX.
  - cbn [app]. destruct X as [|c r].
    + cbn [parse_path_loop]. change (push_pending CUrlParser st ser pend) with (push_pending CSetter st ser pend).
      destruct (finish_segment dbg st ps (push_pending CSetter st ser pend) seg false hh) as [[s2 h2]| |]; reflexivity.
    + cbn [qh_tail] in HX. cbn [parse_path_loop]. rewrite (qh_not_tnl c HX).
      assert ((c =? 47) || ((c =? 92) && st_is_special st) = false) as E by lia.
      cbn [ctx_eqb negb andb]. rewrite E, HX. cbn [andb].
      change (push_pending CUrlParser st ser pend) with (push_pending CSetter st ser pend).
      destruct (finish_segment dbg st ps (push_pending CSetter st ser pend) seg false hh) as [[s2 h2]| |]; reflexivity.
  - cbn [forallb] in Hp. apply andb_true_iff in Hp. destruct Hp as [Hc Hp]. unfold no_qh in Hc. apply negb_true_iff in Hc.
    cbn [app parse_path_loop]. cbn [ctx_eqb negb andb]. rewrite Hc. cbn [andb].
    change (push_pending CUrlParser st ser pend) with (push_pending CSetter st ser pend).
    destruct (is_tnl c); [apply IH; assumption|].
    destruct ((c =? 47) || ((c =? 92) && st_is_special st)).
    + destruct (finish_segment dbg st ps (push_pending CSetter st ser pend ++ [47]) seg true hh) as [[s2 h2]| |]; cbn [pbind];
        [apply IH; assumption | reflexivity | reflexivity].
    + destruct (st_is_file st && (ps <? nlen ser) && is_normalized_wdl (nskipn (ps + 1) ser)); apply IH; assumption.
Qed.

Lemma inp_next_app_some p c r X : inp_next p = Some (c, r) -> inp_next (p ++ X) = Some (c, r ++ X).
Proof.
  unfold inp_next. induction p as [|d p IH]; cbn [drop_while app]; [discriminate|].
  destruct (is_tnl d); [exact IH|]. intros H. inversion H; subst. reflexivity.
Qed.

(* parse_path_start: the argument does not begin with TAB/LF/CR (so that the first character the parser
   looks at is the argument's own), or is empty *)
Theorem path_start_ctx dbg st hh ser p X : forallb no_qh p = true -> qh_tail X ->
  match p with c :: _ => is_tnl c = false | [] => True end ->
  parse_path_start dbg CUrlParser st hh ser (p ++ X) = with_rem X (parse_path_start dbg CSetter st hh ser p).
Proof.
  intros Hp HX H1. unfold parse_path_start, parse_path.
  destruct p as [|c p].
  - cbn [app]. unfold inp_split_first at 2. cbn [inp_next drop_while].
    destruct X as [|d r].
    + unfold inp_split_first. cbn [inp_next drop_while].
      destruct (st_is_special st); [destruct (negb (ends_with_byte 47 ser))|]; apply (path_loop_ctx dbg st _ [] []); try exact I; reflexivity.
    + cbn [qh_tail] in HX. unfold inp_split_first. rewrite (inp_next_cons d r (qh_not_tnl d HX)).
      assert (is_slash_or_bslash d = false) as Es by (unfold is_slash_or_bslash; lia).
      destruct (st_is_special st) eqn:Esp.
      * destruct (negb (ends_with_byte 47 ser)); [rewrite Es|]; apply (path_loop_ctx dbg st _ [] (d :: r)); try exact HX; reflexivity.
      * rewrite HX. destruct st; try discriminate Esp. cbn [parse_path_loop push_pending]. unfold finish_segment.
        rewrite slice_o_some by lia. rewrite N.sub_diag. cbn. reflexivity.
  - cbn [forallb] in Hp. apply andb_true_iff in Hp. destruct Hp as [Hc Hp']. unfold no_qh in Hc. apply negb_true_iff in Hc.
    unfold inp_split_first. rewrite (inp_next_cons c p H1). cbn [app]. rewrite (inp_next_cons c (p ++ X) H1).
    destruct (st_is_special st).
    + destruct (negb (ends_with_byte 47 ser)).
      * destruct (is_slash_or_bslash c).
        -- apply path_loop_ctx; assumption.
        -- apply (path_loop_ctx dbg st _ (c :: p)); [cbn [forallb]; unfold no_qh; rewrite Hc; exact Hp' | exact HX].
      * apply (path_loop_ctx dbg st _ (c :: p)); [cbn [forallb]; unfold no_qh; rewrite Hc; exact Hp' | exact HX].
    + rewrite Hc. destruct (c =? 47); apply (path_loop_ctx dbg st _ (c :: p)); try exact HX; cbn [forallb]; unfold no_qh; rewrite Hc; exact Hp'.
Qed.

(* the fragment state is the very function the setter calls *)
Lemma pqf_fragment ovr st se ser x : nlen ser <= U32_MAX_P ->
  parse_query_and_fragment ovr CUrlParser st se ser (35 :: x)
  = POk (ser ++ 35 :: tnl_text T_FRAGMENT x, None, Some (nlen ser)).
Proof.
  intros Hb. unfold parse_query_and_fragment. rewrite inp_next_cons by reflexivity. cbn [N.eqb Pos.eqb].
  rewrite to_u32_ok by exact Hb. cbn [pbind]. rewrite parse_fragment_text. rewrite <- app_assoc. reflexivity.
Qed.

Definition h_tail (X : list N) : Prop := match X with [] => True | c :: _ => c = 35 end.
Definition after_hash (X : list N) : option (list N) := match X with [] => None | _ :: r => Some r end.

Lemma flush_nil S ser : flush_part S utf8_encode ser [] = ser.
Proof. unfold flush_part. cbn. apply app_nil_r. Qed.

(* the query state in the contexts UrlParser and Setter differs only at '#' *)
Lemma query_loop_ctx S x : forall X ser part, forallb no_h x = true -> h_tail X ->
  parse_query_loop S utf8_encode true ser part (x ++ X)
  = (fst (parse_query_loop S utf8_encode false ser part x), after_hash X).
Proof.
  induction x as [|c x IH]; intros X ser part Hx HX.
  - cbn [app]. destruct X as [|d r]; [reflexivity|]. cbn [h_tail] in HX. subst d.
    cbn [parse_query_loop is_tnl N.eqb Pos.eqb orb andb fst after_hash].
    destruct part; [rewrite flush_nil|]; reflexivity.
  - cbn [forallb] in Hx. apply andb_true_iff in Hx. destruct Hx as [Hc Hx]. unfold no_h in Hc. apply negb_true_iff in Hc.
    cbn [app parse_query_loop]. rewrite Hc. cbn [andb]. destruct (is_tnl c); apply IH; assumption.
Qed.

Theorem parse_query_ctx st se ser x X : forallb no_h x = true -> h_tail X ->
  parse_query None CUrlParser st se ser (x ++ X) = (ser ++ tnl_text (query_set st) x, after_hash X).
Proof.
  intros Hx HX. pose proof (parse_query_text st se ser x) as E. unfold parse_query in *. cbn [ctx_eqb query_enc] in *.
  rewrite query_loop_ctx by assumption. rewrite E. reflexivity.
Qed.

(* the setter trims TAB/LF/CR at both ends first; both states skip them anyway *)
Lemma filter_drop_while_tnl l : filter C06_FragQuery.not_tnl (drop_while is_tnl l) = filter C06_FragQuery.not_tnl l.
Proof.
  induction l as [|c r IH]; [reflexivity|]. cbn [drop_while].
  destruct (is_tnl c) eqn:E; [|reflexivity]. cbn [filter]. unfold C06_FragQuery.not_tnl at 2. rewrite E. exact IH.
Qed.

Lemma filter_rev_N (g : N -> bool) l : filter g (rev l) = rev (filter g l).
Proof.
  induction l as [|c r IH]; [reflexivity|]. cbn [rev filter]. rewrite filter_app, IH. cbn [filter].
  destruct (g c); [reflexivity | apply app_nil_r].
Qed.

Lemma tnl_text_trim S x : usv_list x -> tnl_text S (input_new_trim_tnl x) = tnl_text S x.
Proof.
  intros Hx. rewrite !tnl_text_spec by (try apply trim_matches_usv; exact Hx). do 2 f_equal.
  unfold input_new_trim_tnl, trim_matches. rewrite filter_rev_N, filter_drop_while_tnl, filter_rev_N, rev_involutive.
  apply filter_drop_while_tnl.
Qed.

Theorem pqf_query st se ser x X : forallb no_h x = true -> h_tail X ->
  nlen ser <= U32_MAX_P -> nlen (ser ++ 63 :: tnl_text (query_set st) x) <= U32_MAX_P ->
  parse_query_and_fragment None CUrlParser st se ser (63 :: x ++ X)
  = POk (match after_hash X with
         | None => (ser ++ 63 :: tnl_text (query_set st) x, Some (nlen ser), None)
         | Some r => ((ser ++ 63 :: tnl_text (query_set st) x) ++ 35 :: tnl_text T_FRAGMENT r, Some (nlen ser),
                      Some (nlen (ser ++ 63 :: tnl_text (query_set st) x)))
         end).
Proof.
  intros Hx HX Hb1 Hb2. unfold parse_query_and_fragment. rewrite inp_next_cons by reflexivity.
  replace (63 =? 35) with false by reflexivity. replace (63 =? 63) with true by reflexivity.
  rewrite to_u32_ok by exact Hb1. cbn [pbind]. rewrite parse_query_ctx by assumption.
  rewrite <- app_assoc. cbn [app]. destruct (after_hash X) as [r|]; [|reflexivity].
  rewrite to_u32_ok by exact Hb2. cbn [pbind]. rewrite parse_fragment_text. rewrite <- app_assoc. reflexivity.
Qed.
