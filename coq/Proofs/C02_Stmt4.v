(* Proofs/C02_Stmt4.v - the quantifier Reachable4 of C02_statement4.
   C02_statement / C02_statement3 are false (C02_Reach4.statement_refuted, statement3_refuted): known_step2 does not
   exclude the class F-C07-8.  Known_F_C02_10 = that class seen from C02: url::quirks::set_host on a URL whose scheme is not
   special, whose user name is empty and which has a password (the code refuses an empty host when the URL has a user
   name or a port and does not look at the password: a://:pw@h/p -> a://:pw@/p, which does not parse).  The class is an
   over-approximation (every quirks host call on such a URL), the mirror of known_f_c07_8 in harness/src/bin/c02/main.rs.
   known_step3 = known_step2 + Known_F_C02_10, Reachable4, C02_statement4 (neither proved nor refuted; C02_Reach5 ..
   C02_Reach10 prove it for the histories ReachC4 .. ReachC9), the witness that Known_F_C02_10 holds a non-fixpoint,
   and the inclusion Reachable4 <= Reachable3. *)
From RU Require Import Proofs.C15_Ser.
From Coq Require Import String.
From RU Require Import Base.Prelude Model.AsciiSet Model.HostT Model.Host Model.UrlRecord Model.Parser Model.Setters
  Model.WF Model.FormUrlencoded Model.QueryPairs Proofs.C02_Reach Proofs.C02_AuthParts Proofs.C02_Hist
  Proofs.C02_Reach3 Proofs.C02_SetHostCanon Proofs.C02_Reach4 Proofs.C03_WF Proofs.C09_Host Proofs.C02_HistInst.
Open Scope N_scope.
Open Scope list_scope.

(* Url::username().is_empty() and Url::password().is_some(), read off the record without the debug assertions *)
Definition uname_empty (u : url) : bool := negb (has_authority_b u && (scheme_end u + 3 <? username_end u)).
(* has_password_b (Proofs/C03_WF.v) = has_authority && username_end <> len && the byte at username_end is ':' *)

Definition Known_F_C02_10 (u : url) (o : op) : bool :=
  match o with
  | OQHost _ => negb (st_is_special (scheme_type_of (scheme_of u))) && uname_empty u && has_password_b u
  | _ => false
  end.

Section Reach4.
Variable dbg : bool.
Variable hp hpo : list N -> result host.
Variable hd : host -> list N.

Definition known_step3 (u : url) (o : op) : bool := known_step2 dbg hp hpo hd u o || Known_F_C02_10 u o.

Inductive Reachable4 : url -> Prop :=
| R4_parse ovr input u :
    usv_list input -> parse_url dbg hp hpo hd ovr None input = POk u ->
    Known_file_drive u = false -> Reachable4 u
| R4_join ovr b input u :
    Reachable4 b -> usv_list input -> parse_url dbg hp hpo hd ovr (Some b) input = POk u ->
    Known_file_drive u = false -> Reachable4 u
| R4_step u o u' :
    Reachable4 u -> op_args_ok o -> known_step3 u o = false -> apply_op dbg hp hpo hd u o = Some u' ->
    Known_file_drive u' = false -> Reachable4 u'
| R4_qpm u ops u' :
    Reachable4 u -> Forall op_ok ops -> query_pairs_session dbg u ops = Some u' ->
    Known_file_drive u' = false -> Reachable4 u'.

Lemma known_step3_2 u o : known_step3 u o = false -> known_step2 dbg hp hpo hd u o = false.
Proof. unfold known_step3. intros H. apply orb_false_iff in H. exact (proj1 H). Qed.

Lemma known_step3_host_or_path u o : is_host_or_path_op o = false -> known_step3 u o = false.
Proof.
  intros H. unfold known_step3. rewrite (known_step2_host_or_path dbg hp hpo hd u o H).
  destruct o; try discriminate H; reflexivity.
Qed.

(* Reachable4 is a restriction of Reachable3 *)
Lemma Reachable4_3 u : Reachable4 u -> Reachable3 dbg hp hpo hd u.
Proof.
  induction 1 as [ovr input u Hu Hp Hk | ovr b input u Hb IH Hu Hp Hk | u o u' Hr IH Ha Hk Ho Hk'
                 | u ops u' Hr IH Hops Hs Hk].
  - exact (R3_parse dbg hp hpo hd ovr input u Hu Hp Hk).
  - exact (R3_join dbg hp hpo hd ovr b input u IH Hu Hp Hk).
  - exact (R3_step dbg hp hpo hd u o u' IH Ha (known_step3_2 u o Hk) Ho Hk').
  - exact (R3_qpm dbg hp hpo hd u ops u' IH Hops Hs Hk).
Qed.
End Reach4.

Definition C02_statement4 : Prop :=
  forall dbg hp hpo hd, HostOK2 hp hpo hd -> host_nonempty hp hpo ->
  forall u, Reachable4 dbg hp hpo hd u -> Fixpoint_of_reparse dbg hp hpo hd u.

(* C02_statement3 (refuted) would have implied it *)
Lemma statement3_implies_4 : C02_statement3 -> C02_statement4.
Proof. intros H dbg hp hpo hd HOK _ u Hr. exact (H dbg hp hpo hd HOK u (Reachable4_3 dbg hp hpo hd u Hr)). Qed.

Lemma canon_op3_not_10 u o : canon_op3 u o = true -> Known_F_C02_10 u o = false.
Proof. destruct o; try reflexivity. cbn [canon_op3 canon_op]. discriminate. Qed.

(* Known_F_C02_10 contains a history that is not a fixpoint (on the host model, idna_clean):
   a://:pw@h/p -> quirks::set_host("") = a://:pw@/p: the step is in Known_F_C02_10 and in no other class, the
   serialization of the result does not parse (EmptyHost) *)
Lemma F_C02_10_witness :
  Known_F_C02_10 w10_u0 w10_op = true
  /\ known_step2 true mhp host_parse_opaque host_display w10_u0 w10_op = false
  /\ known_step3 true mhp host_parse_opaque host_display w10_u0 w10_op = true
  /\ apply_op true mhp host_parse_opaque host_display w10_u0 w10_op = Some w10_u1
  /\ list_eqb (ser w10_u1) (B "a://:pw@/p") = true
  /\ match reparse true mhp host_parse_opaque host_display w10_u1 with PErr EmptyHost => true | _ => false end = true.
Proof. vm_compute. repeat split; reflexivity. Qed.

(* the class is tight on three sides: a user name, a special scheme, or no password put the step outside it; the
   hostname setter is never in it *)
Example F_C02_10_class :
  match mparse (B "a://u:pw@h/p") with POk u => Known_F_C02_10 u (OQHost []) | _ => true end = false
  /\ match mparse (B "http://:pw@h/p") with POk u => Known_F_C02_10 u (OQHost []) | _ => true end = false
  /\ match mparse (B "a://h/p") with POk u => Known_F_C02_10 u (OQHost []) | _ => true end = false
  /\ match mparse (B "a:/p") with POk u => Known_F_C02_10 u (OQHost []) | _ => true end = false
  /\ match mparse (B "a://:pw@h/p") with POk u => Known_F_C02_10 u (OQHostname []) | _ => true end = false
  /\ match mparse (B "a://:pw@h/p") with POk u => Known_F_C02_10 u (OQHost (B "x")) | _ => false end = true.
Proof. vm_compute. repeat split. Qed.
