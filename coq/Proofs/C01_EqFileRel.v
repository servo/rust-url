(* Proofs/C01_EqFileRel.v - C01 equivalence, file scheme: the canonical model record (auth_url of
   Proofs/C01_EqAuth.v with scheme "file", no credentials, no port: exactly the record parse_file builds with
   file_url) satisfies the structural invariant, has the ten API strings of the Standard's record and is
   `related` to it: the instance `STFile` of Section Canonical of Proofs/C01_EqAuth.v; the record of side
   conditions asks for the file scheme type, empty credentials and no port (which `spec_valid` needs of a
   file URL). *)
From RU Require Import Base.Prelude Model.UrlRecord Model.Parser Spec.Whatwg Proofs.C02_Parts Proofs.C01_EqRef
  Proofs.C01_EqAuth.

(* the canonical pair is related *)
Record auth_ok_f (shs : spec_host -> list N) (sch un pw ht : list N) (hi : host_internal) (sh : spec_host)
       (po : option N) (segs : list (list N)) (q f : option (list N)) : Prop := mk_auth_ok_f_s {
  akf_sch : scheme_canon sch = true;
  akf_ns : scheme_type_of sch = STFile;
  akf_ht : ht = shs sh;
  akf_col : starts_with_cp 58 ht = false;
  akf_hi : hi = HI_None -> ht = [];
  akf_hp : ht = [] -> po = None;
  akf_po : forall p, po = Some p -> p <= 65535;
  akf_pt : forallb (fun c => negb ((c =? 63) || (c =? 35))) (flat_map (fun s => 47 :: s) segs) = true;
  akf_q : opt_clean (query_set STFile) q;
  akf_file : un = [] /\ pw = [] /\ po = None
}.

Lemma auth_ok_f_canon shs sch un pw ht hi sh po segs q f :
  auth_ok_f shs sch un pw ht hi sh po segs q f -> canon_ok STFile shs sch un pw ht hi sh po segs q f.
Proof. intros [? ? ? ? ? ? ? ? ? ?]. constructor; auto. Qed.

Section Related.
Variable dbg : bool.
Variable shs : spec_host -> list N.

Section One.
Variables (sch un pw ht : list N) (hi : host_internal) (sh : spec_host) (po : option N)
          (segs : list (list N)) (q f : option (list N)).
Hypothesis K : auth_ok_f shs sch un pw ht hi sh po segs q f.

Let pt := flat_map (fun s => 47 :: s) segs.
Let u := auth_url sch un pw ht hi po pt q f.

Theorem related_auth_f : related dbg shs u (spec_auth_url sch un pw sh po segs q f).
Proof. exact (canon_related dbg _ _ _ _ _ _ _ _ _ _ _ _ (auth_ok_f_canon _ _ _ _ _ _ _ _ _ _ _ K)). Qed.

End One.
End Related.
