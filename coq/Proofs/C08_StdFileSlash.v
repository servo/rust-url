(* Proofs/C08_StdFileSlash.v - the Standard-side reading of containment for FILE bases, the references that
   C08_StdFile.v leaves out: the empty reference, '?'-led and '#'-led references (the Standard's file state copies host,
   path, query of the base) and references with exactly ONE leading '/' or '\' whose next character is not '/' or '\'
   (the Standard's file slash state, "otherwise" arm: host of the base, and the first segment of the base path when it
   is a normalized Windows drive letter and the text behind the separator does not start with a drive letter).
   On the transcription Spec/Whatwg.v: the Standard succeeds and scheme, username, password, host, port of its result
   are the base's (std_contain_file_simple, std_contain_file_one; with the path-relative shape of C08_StdFile:
   std_contain_file_any; with the drive-letter shape, for every reference inside the premise of the containment law:
   std_contain_file_full, std_contain_every).  The side conditions are computable predicates on the cleaned reference
   text.  NOTE that the one-slash arm has NO drive-letter exclusion on the Standard's side: "/C:/x" against file://h/p keeps the host h in
   the Standard, while parser.rs drops it (F-C01-1 / F-C08-1, C08_1_refuted).
   With C01's class theorems C01_EqFileOne.class_file_rel_one / class_file_rel_one_carry the crate's join answers
   Overflow or a record related to the Standard's result, a full_base pair again, with the base's front API strings
   (Properties/C08.v, C08_std_contain_file_one_agree). *)
From RU Require Import Base.Prelude Base.Utf8 Model.AsciiSet Gen.Tables Model.PercentEncoding Model.HostT Model.UrlRecord
  Model.Parser Model.WF Model.KnownC08 Model.KnownC01 Spec.Whatwg Proofs.ListN
  Proofs.C01_EqRun Proofs.C01_EqRef Proofs.C01_EqApi Proofs.C01_EqRel Proofs.C01_EqRelArms Proofs.C01_EqAsm
  Proofs.C01_EqShape Proofs.C01_EqSpSpec Proofs.C01_EqFileSpec Proofs.C01_EqFileBase Proofs.C01_EqFileOne
  Proofs.C08_Std Proofs.C08_StdFile.
Open Scope N_scope.
Open Scope list_scope.

(* the premises, decided on the cleaned reference *)
(* empty, or first character '?' or '#' *)
Definition std_file_simple_pre (l : list N) : bool :=
  match l with [] => true | c :: _ => (c =? 63) || (c =? 35) end.
(* exactly one leading '/' or '\': the next character (if any) is neither *)
Definition std_file_one_pre (l : list N) : bool :=
  match l with c1 :: R1 => is_sl c1 && no_sl_head R1 | [] => false end.
(* every scheme-less reference shape that is proved to keep the front of a file base *)
Definition std_file_all_pre (sb : spec_url) (l : list N) : bool :=
  std_file_simple_pre l || std_file_one_pre l
  || (std_file_rel_pre l && last_not_nwdl (path_segments sb)).

Section StdFS.
Variable shp : bool -> list N -> option spec_host.

(* (1) the empty reference, '?q', '#f': the file state copies host, path (and query) of the base.  No hypothesis on the
   scheme is needed (for a file base this is the Standard's file state, otherwise the relative state); beside the
   front, the path of the result is the base's *)
Theorem std_contain_file_simple input sb : spec_valid sb -> has_opaque_path sb = false ->
  std_file_simple_pre (spec_clean input) = true ->
  exists su, spec_basic_url_parse shp input (Some sb) = BDone su /\ spec_same_front sb su /\ su_path su = su_path sb.
Proof.
  intros V Hop Hpre. unfold std_file_simple_pre in Hpre.
  destruct (std_simple shp input sb V) as (He & Hf & Hq).
  destruct (spec_clean input) as [|c t] eqn:Ecl.
  { eexists. split; [exact (He eq_refl Hop)|]. split; [repeat split | reflexivity]. }
  destruct (c =? 35) eqn:E35.
  { apply N.eqb_eq in E35. subst c. eexists. split; [exact (Hf t eq_refl)|]. split; [repeat split | reflexivity]. }
  rewrite orb_false_r in Hpre. apply N.eqb_eq in Hpre. subst c.
  eexists. split; [exact (Hq t eq_refl Hop)|]. split; [repeat split | reflexivity].
Qed.

(* (2) one leading '/' or '\': the file slash state keeps the host of the base; closed form of the result with the
   segment list one_init sb R1 handed to the path state (the normalized drive letter of the base carried over) *)
Theorem std_contain_file_one input sb : spec_valid sb -> has_opaque_path sb = false ->
  list_eqb (su_scheme sb) str_file = true -> std_file_one_pre (spec_clean input) = true ->
  exists su, spec_basic_url_parse shp input (Some sb) = BDone su /\ spec_same_front sb su
    /\ su = file_tail (fkeep sb (one_init sb (tl (spec_clean input))))
                      (spath_f (tl (spec_clean input)) (one_init sb (tl (spec_clean input))) []).
Proof.
  intros V Hop Hf Hpre. unfold std_file_one_pre in Hpre.
  destruct (spec_clean input) as [|c1 R1] eqn:Ecl; [discriminate Hpre|].
  apply andb_true_iff in Hpre. destruct Hpre as [E1 Hh]. cbn [tl].
  eexists. split; [exact (spec_file_rel_one shp sb input c1 R1 Ecl E1 Hh Hop Hf)|].
  split; [|reflexivity].
  apply file_tail_front; [apply list_eqb_spec; exact Hf | exact V].
Qed.

End StdFS.

(* the one-slash premise excludes a scheme and the other shapes: the three premises are pairwise disjoint *)
Lemma std_file_pre_disjoint l :
  (std_file_simple_pre l && std_file_one_pre l = false)
  /\ (std_file_simple_pre l && std_file_rel_pre l = false)
  /\ (std_file_one_pre l && std_file_rel_pre l = false).
Proof.
  unfold std_file_simple_pre, std_file_one_pre, std_file_rel_pre.
  destruct l as [|c t]; [rewrite andb_false_r; repeat split|].
  destruct (c =? 63) eqn:E63; destruct (c =? 35) eqn:E35; destruct (is_sl c) eqn:Esl; cbn [orb andb negb];
    rewrite ?andb_false_r; repeat split; try reflexivity;
    unfold is_sl in Esl; apply N.eqb_eq in E63 || apply N.eqb_eq in E35; subst c; discriminate Esl.
Qed.

Section StdFS2.
Variable shp : bool -> list N -> option spec_host.

(* the three reference shapes with no premise on the base path *)
Definition std_file_any_pre (l : list N) : bool :=
  std_file_simple_pre l || std_file_one_pre l || std_file_rel_pre l.

Theorem std_contain_file_any input sb : spec_valid sb -> has_opaque_path sb = false ->
  list_eqb (su_scheme sb) str_file = true -> std_file_any_pre (spec_clean input) = true ->
  exists su, spec_basic_url_parse shp input (Some sb) = BDone su /\ spec_same_front sb su.
Proof.
  intros V Hop Hf Hpre. unfold std_file_any_pre in Hpre.
  apply orb_true_iff in Hpre. destruct Hpre as [Hpre|Hpre]; [apply orb_true_iff in Hpre; destruct Hpre as [Hpre|Hpre]|].
  - destruct (std_contain_file_simple shp input sb V Hop Hpre) as (su & HS & HF & _). exists su. split; assumption.
  - destruct (std_contain_file_one shp input sb V Hop Hf Hpre) as (su & HS & HF & _). exists su. split; assumption.
  - destruct (std_contain_file_rel_any shp input sb V Hop Hf Hpre) as (su & HS & HF & _). exists su. split; assumption.
Qed.
End StdFS2.

(* the full Standard-side containment law for file bases, and for every base *)
Section StdFS3.
Variable shp : bool -> list N -> option spec_host.

(* a scheme-less reference that starts with a Windows drive letter ("C|/y"): the file state takes the host of the base
   and the EMPTY path *)
Theorem std_contain_file_drive input sb : spec_valid sb -> has_opaque_path sb = false ->
  list_eqb (su_scheme sb) str_file = true -> spec_scheme (spec_clean input) = None ->
  starts_with_windows_drive_letter (spec_clean input) = true ->
  exists su, spec_basic_url_parse shp input (Some sb) = BDone su /\ spec_same_front sb su
    /\ su = file_tail (fkeep sb []) (spath_f (spec_clean input) [] []).
Proof.
  intros V Hop Hf Hs Hw.
  destruct (spec_clean input) as [|c t] eqn:Ecl; [discriminate Hw|].
  eexists. split; [exact (spec_file_rel_drive shp sb input c t Ecl Hs Hw Hop Hf)|]. split; [|reflexivity].
  apply file_tail_front; [apply list_eqb_spec; exact Hf | exact V].
Qed.

(* file bases: the premise of C08_Std.std_contain (no scheme, no two leading slash characters, '\' counting) is enough *)
Theorem std_contain_file_full input sb : spec_valid sb -> has_opaque_path sb = false ->
  list_eqb (su_scheme sb) str_file = true -> std_contain_pre sb (spec_clean input) = true ->
  exists su, spec_basic_url_parse shp input (Some sb) = BDone su /\ spec_same_front sb su.
Proof.
  intros V Hop Hf Hpre. unfold std_contain_pre in Hpre. apply andb_true_iff in Hpre. destruct Hpre as [H1 H2].
  apply negb_true_iff in H1. apply negb_true_iff in H2.
  pose proof (no_scheme_std input H1) as Hs.
  pose proof Hf as Hsf. apply list_eqb_spec in Hsf. rewrite Hsf in H2. change (is_special_scheme str_file) with true in H2.
  destruct (std_file_simple_pre (spec_clean input)) eqn:Esimple.
  { destruct (std_contain_file_simple shp input sb V Hop Esimple) as (su & HS & HF & _). exists su. split; assumption. }
  destruct (std_file_one_pre (spec_clean input)) eqn:Eone.
  { destruct (std_contain_file_one shp input sb V Hop Hf Eone) as (su & HS & HF & _). exists su. split; assumption. }
  destruct (starts_with_windows_drive_letter (spec_clean input)) eqn:Hw.
  { destruct (std_contain_file_drive input sb V Hop Hf Hs Hw) as (su & HS & HF & _). exists su. split; assumption. }
  assert (std_file_rel_pre (spec_clean input) = true) as Hrel.
  { unfold std_file_rel_pre. rewrite Hs, Hw. cbn [andb negb].
    unfold std_file_simple_pre in Esimple. unfold std_file_one_pre in Eone.
    destruct (spec_clean input) as [|c t]; [discriminate Esimple|].
    apply orb_false_iff in Esimple. destruct Esimple as [E63 E35]. rewrite E63, E35. cbn [negb]. rewrite !andb_true_r.
    destruct (is_sl c) eqn:Esl; [|reflexivity]. exfalso.
    cbn [andb] in Eone. destruct t as [|c2 r]; [discriminate Eone|]. cbn [no_sl_head] in Eone. apply negb_false_iff in Eone.
    cbn [two_leading_slashes] in H2. unfold is_ref_slash in H2. rewrite !andb_true_r in H2.
    unfold is_sl in Esl, Eone. rewrite Esl, Eone in H2. discriminate H2. }
  destruct (std_contain_file_rel_any shp input sb V Hop Hf Hrel) as (su & HS & HF & _). exists su. split; assumption.
Qed.

(* EVERY base record that is not opaque - file or not: C08_Std.std_contain without its premise on the scheme *)
Theorem std_contain_every input sb : spec_valid sb -> has_opaque_path sb = false ->
  std_contain_pre sb (spec_clean input) = true ->
  exists su, spec_basic_url_parse shp input (Some sb) = BDone su /\ spec_same_front sb su.
Proof.
  intros V Hop Hpre. destruct (list_eqb (su_scheme sb) str_file) eqn:Hf.
  - exact (std_contain_file_full input sb V Hop Hf Hpre).
  - exact (std_contain shp input sb V Hop Hf Hpre).
Qed.
End StdFS3.

(* the crate's join agrees on C01's one-slash classes *)
(* C01's classes for the scheme-less one-slash reference: in_class_file_rel_one (no drive letter carried: the text
   behind the separator does not start with a drive letter and the first segment of the base path is not a normalized
   drive letter, base with a host field - or the text starts with a drive letter and the base has the EMPTY host) and
   in_class_file_rel_one_carry (base with the empty host whose first path segment is a normalized drive letter: both
   sides carry it over); the path loop inside fpath_ok / strip_stable in both *)
Definition in_class_file_one_any (sb : spec_url) (input : list N) : bool :=
  in_class_file_rel_one sb input || in_class_file_rel_one_carry sb input.

(* what either test says of the base and of the text it is applied to *)
Lemma file_one_any_facts sb R : file_one_ok sb R || file_one_carry_ok sb R = true ->
  has_opaque_path sb = false /\ list_eqb (su_scheme sb) str_file = true /\ std_file_one_pre R = true.
Proof.
  unfold file_one_ok, file_one_carry_ok, std_file_one_pre.
  intros H. apply orb_true_iff in H. destruct H as [H|H].
  - apply andb_true_iff in H. destruct H as [H Hok]. apply andb_true_iff in H. destruct H as [Hop Hf].
    apply negb_true_iff in Hop. split; [exact Hop|]. split; [exact Hf|].
    destruct R as [|c1 R1]; [discriminate Hok|].
    apply andb_true_iff in Hok. destruct Hok as [Hok _]. apply andb_true_iff in Hok. destruct Hok as [Hok _]. exact Hok.
  - apply andb_true_iff in H. destruct H as [H Hok]. apply andb_true_iff in H. destruct H as [H _].
    apply andb_true_iff in H. destruct H as [H _]. apply andb_true_iff in H. destruct H as [Hop Hf].
    apply negb_true_iff in Hop. split; [exact Hop|]. split; [exact Hf|].
    destruct R as [|c1 R1]; [discriminate Hok|].
    apply andb_true_iff in Hok. destruct Hok as [Hok _]. apply andb_true_iff in Hok. destruct Hok as [Hok _].
    apply andb_true_iff in Hok. destruct Hok as [Hok _]. exact Hok.
Qed.

Lemma in_class_file_one_pre sb input : in_class_file_one_any sb input = true ->
  has_opaque_path sb = false /\ list_eqb (su_scheme sb) str_file = true /\ std_file_one_pre (spec_clean input) = true.
Proof. apply file_one_any_facts. Qed.

(* the scheme-less drive-letter reference ("C|/y") against a file base with the EMPTY host: C01's class
   in_class_file_rel_drive *)
Lemma in_class_file_rel_drive_pre sb input : in_class_file_rel_drive sb input = true ->
  has_opaque_path sb = false /\ list_eqb (su_scheme sb) str_file = true
  /\ spec_scheme (spec_clean input) = None /\ starts_with_windows_drive_letter (spec_clean input) = true.
Proof.
  unfold in_class_file_rel_drive. intros Hc.
  destruct (spec_scheme (spec_clean input)) as [?|] eqn:Es; [discriminate Hc|].
  destruct (file_drive_ok_facts sb _ Hc) as (Hop & Hf & _ & Hw & _). repeat split; assumption.
Qed.

(* non-vacuity *)
From RU Require Import Model.Host Proofs.C09_Host Spec.WhatwgHostParse.
(* the Standard side alone: base = the Standard's parse result of `base`; every reference meets std_file_all_pre
   through the named premise, the Standard succeeds, scheme / hostname / port text of the result are the base's *)
Definition std_fs_case (base : list N) (refs : list (list N)) : bool :=
  let idna := ex_idna_clean in
  match spec_basic_url_parse (spec_host_parser idna) base None with
  | BDone sb =>
      negb (has_opaque_path sb) && list_eqb (su_scheme sb) str_file
      && forallb (fun r =>
           (std_file_simple_pre (spec_clean r) || std_file_one_pre (spec_clean r))
           && std_file_all_pre sb (spec_clean r)
           && match spec_basic_url_parse (spec_host_parser idna) r (Some sb) with
              | BDone su =>
                  list_eqb (su_scheme su) (su_scheme sb)
                  && list_eqb (get_hostname spec_host_serializer su) (get_hostname spec_host_serializer sb)
                  && list_eqb (get_host spec_host_serializer su) (get_host spec_host_serializer sb)
                  && list_eqb (get_port su) (get_port sb)
              | _ => false
              end) refs
  | _ => false
  end.

(* with the crate: base on both sides, references in C01's one-slash classes; both succeed, the Standard's href is the
   model's serialization and equals the expected text *)
Definition std_fs_agree_case (base : list N) (refs : list (list N * list N)) : bool :=
  let idna := ex_idna_clean in
  match parse_url true (host_parse idna) host_parse_opaque host_display None None base,
        spec_basic_url_parse (spec_host_parser idna) base None with
  | POk b, BDone sb =>
      spec_base_ok sb
      && forallb (fun re =>
           in_class_file_one_any sb (fst re)
           && match spec_basic_url_parse (spec_host_parser idna) (fst re) (Some sb),
                    parse_url true (host_parse idna) host_parse_opaque host_display None (Some b) (fst re) with
              | BDone su, POk u' =>
                  list_eqb (get_hostname spec_host_serializer su) (get_hostname spec_host_serializer sb)
                  && list_eqb (get_href spec_host_serializer su) (ser u')
                  && list_eqb (ser u') (snd re)
              | _, _ => false
              end) refs
  | _, _ => false
  end.

From Coq Require Import String.
From RU Require Import Proofs.C02_Reach.
Open Scope string_scope.
(* any file base: every reference meets std_file_any_pre, the Standard succeeds, keeps scheme / host / port and gives the
   expected href *)
Definition std_fs_any_case (base : list N) (refs : list (list N * list N)) : bool :=
  let idna := ex_idna_clean in
  match spec_basic_url_parse (spec_host_parser idna) base None with
  | BDone sb =>
      negb (has_opaque_path sb) && list_eqb (su_scheme sb) str_file
      && forallb (fun re =>
           std_file_any_pre (spec_clean (fst re))
           && match spec_basic_url_parse (spec_host_parser idna) (fst re) (Some sb) with
              | BDone su =>
                  list_eqb (su_scheme su) (su_scheme sb)
                  && list_eqb (get_host spec_host_serializer su) (get_host spec_host_serializer sb)
                  && list_eqb (get_port su) (get_port sb)
                  && list_eqb (get_href spec_host_serializer su) (snd re)
              | _ => false
              end) refs
  | _ => false
  end.

(* the full law: every reference meets std_contain_pre against the Standard's parse result of the base, the Standard
   succeeds, keeps scheme / username / password / host / port texts and gives the expected href *)
Definition std_every_case (base : list N) (refs : list (list N * list N)) : bool :=
  let idna := ex_idna_clean in
  match spec_basic_url_parse (spec_host_parser idna) base None with
  | BDone sb =>
      negb (has_opaque_path sb)
      && forallb (fun re =>
           std_contain_pre sb (spec_clean (fst re))
           && match spec_basic_url_parse (spec_host_parser idna) (fst re) (Some sb) with
              | BDone su =>
                  list_eqb (su_scheme su) (su_scheme sb) && list_eqb (su_username su) (su_username sb)
                  && list_eqb (su_password su) (su_password sb)
                  && list_eqb (get_host spec_host_serializer su) (get_host spec_host_serializer sb)
                  && list_eqb (get_port su) (get_port sb)
                  && list_eqb (get_href spec_host_serializer su) (snd re)
              | _ => false
              end) refs
  | _ => false
  end.

(* where the crate leaves the Standard (known finding F-C01-1 / F-C08-1, the drive-letter branches of parse_file): the
   reference meets the Standard-side premise, the Standard keeps the host of the base, the model of Url::join drops it *)
Definition std_file_diverge_case (base r std_href model_ser : list N) : bool :=
  let idna := ex_idna_clean in
  match parse_url true (host_parse idna) host_parse_opaque host_display None None base,
        spec_basic_url_parse (spec_host_parser idna) base None with
  | POk b, BDone sb =>
      std_contain_pre sb (spec_clean r)
      && match spec_basic_url_parse (spec_host_parser idna) r (Some sb),
               parse_url true (host_parse idna) host_parse_opaque host_display None (Some b) r with
         | BDone su, POk u' =>
             list_eqb (get_href spec_host_serializer su) std_href && list_eqb (ser u') model_ser
             && list_eqb (get_host spec_host_serializer su) (get_host spec_host_serializer sb)
             && negb (list_eqb std_href model_ser)
         | _, _ => false
         end
  | _, _ => false
  end.

(* the drive-letter class with the crate: base with the empty host on both sides, references in in_class_file_rel_drive;
   both succeed, the Standard's href is the model's serialization and equals the expected text, host text kept *)
Definition std_fs_drive_agree_case (base : list N) (refs : list (list N * list N)) : bool :=
  let idna := ex_idna_clean in
  match parse_url true (host_parse idna) host_parse_opaque host_display None None base,
        spec_basic_url_parse (spec_host_parser idna) base None with
  | POk b, BDone sb =>
      spec_base_ok sb
      && forallb (fun re =>
           in_class_file_rel_drive sb (fst re) && std_contain_pre sb (spec_clean (fst re))
           && match spec_basic_url_parse (spec_host_parser idna) (fst re) (Some sb),
                    parse_url true (host_parse idna) host_parse_opaque host_display None (Some b) (fst re) with
              | BDone su, POk u' =>
                  list_eqb (get_host spec_host_serializer su) (get_host spec_host_serializer sb)
                  && list_eqb (get_href spec_host_serializer su) (ser u')
                  && list_eqb (ser u') (snd re)
              | _, _ => false
              end) refs
  | _, _ => false
  end.

