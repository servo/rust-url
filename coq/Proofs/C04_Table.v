(* Proofs/C04_Table.v - "no public function panics", function by function.
   table : one row per entry of the regenerated public-function inventory (T_C04_API = C04_Inventory.modelled_api,
   167 `pub fn`s of the five crates), in source order.  A row names
     - the kind of decision (kind),
     - the CLAIM (claim_id; claim i : Prop is the statement, on the Gallina models, that decides the row),
     - the name of the pinned theorem of Properties/ that states it (a string, for the reader and the manifest).
   claims_hold proves every claim.  table_complete says that the (crate, name) columns of the table ARE the regenerated
   inventory: a new `pub fn` in /repo changes T_C04_API and breaks it until a row - hence a decision - is added.
   kinds_consistent says that exactly the rows of kind KByType / KHarness carry the trivial claim, and
   bytype_no_panic_macro that no KByType function contains a panic macro of its own in the regenerated panic-site
   inventory (two listed exceptions).
   Modules with clashing constructor names are required without import. *)
From Coq Require Import String Ascii.
From RU Require Import Base.Prelude Base.Utf8 Model.AsciiSet Gen.Tables Model.PercentEncoding
  Model.HostT Model.UrlRecord Model.Parser Model.WF.
From RU Require Base.U32_c13 Base.Outcome_c15 Model.Punycode Model.FormUrlencoded Model.Base64 Model.Mime Model.DataUrl
  Model.Host Model.Setters Model.Uts46 Model.FilePath Model.Origin Model.MakeRelative Model.QueryPairs.
From RU Require Proofs.C04_Inventory Proofs.C04_NoPanic Proofs.C04_Parse Proofs.C04_ParseTotal Proofs.C04_ParseFile7
  Proofs.C04_PathFile Proofs.C04_PathCtx Proofs.C04_SetPath Proofs.C04_SetHost Proofs.C04_Chain Proofs.C04_Rest
  Proofs.C04_Origin Proofs.C04_Uts46_Inner Proofs.C06_Main Proofs.C03_WF Proofs.C03_ReachParts Proofs.C09_Reject
  Proofs.C13_Known Proofs.C15_Main Proofs.C15_Ser Proofs.C15_Parse Proofs.C17_Main Proofs.C17_Decode Proofs.C16_Origin
  Proofs.Idna_Known Proofs.Idna_WalkEnc Proofs.Idna_WalkDepr Proofs.C19_Pure Proofs.C04_CheckInv Proofs.C06_Suffix.
From RU Require Properties.C03 Properties.C06 Properties.C09 Properties.C13 Properties.C14 Properties.C15 Properties.C19.

Inductive kind :=
| KTheorem      (* no panic, under the stated well-formedness premise only *)
| KExact        (* panics EXACTLY in a computable / stated class: an iff-theorem (the class is a known finding or a documented panic) *)
| KOutside      (* no panic outside a named known class (the class has a witness: a _refuted theorem) *)
| KByType       (* plain data: constructor, field read, table lookup or a total model function whose result type has no
                   panic outcome and whose Rust body has no slicing / unwrap / arithmetic that can fail *)
| KDocumented   (* a panic the documentation promises (DESIGN section 10) on a function without Coq model: probed once by the harness *)
| KHarness.     (* no Coq model (I/O, serde, callbacks): the catch_unwind harness row only *)

Definition kind_eqb (a b : kind) : bool :=
  match a, b with
  | KTheorem, KTheorem | KExact, KExact | KOutside, KOutside | KByType, KByType | KDocumented, KDocumented
  | KHarness, KHarness => true
  | _, _ => false
  end.

Inductive claim_id :=
| P_trivial
| P_parse_nobase | P_parse_iff | P_parse_with_params
| P_accessors | P_accessors2 | P_views | P_make_relative | P_origin
| P_setters | P_set_path | P_psm | P_set_host | P_set_ip_host | P_query_pairs_mut
| P_file_from | P_file_to
| P_host | P_authority | P_path_state
| P_quirks_get | P_quirks_set
| P_new_opaque
| P_uts46 | P_uts46_process | P_idna_wrappers | P_idna_to_ascii | P_verify_dns
| P_punycode
| P_pe_table | P_aset
| P_form | P_form_ser
| P_data_process | P_data_decode | P_base64 | P_mime
| P_check_invariants.

Definition claim_eqb_trivial (i : claim_id) : bool := match i with P_trivial => true | _ => false end.

Definition base_premise (base : option url) : Prop :=
  match base with Some b => C04_ParseTotal.base_ok b = true | None => True end.

Definition claim (i : claim_id) : Prop :=
  match i with
  | P_trivial => True
  | P_parse_nobase =>
      forall dbg hp hpo hd ovr input, parse_url dbg hp hpo hd ovr None input <> PPanic
  | P_parse_iff =>
      forall dbg hp hpo hd ovr base input, base_premise base ->
        (parse_url dbg hp hpo hd ovr base input = PPanic <-> dbg = true /\ C04_ParseFile7.known_c04_7x base input = true)
  | P_parse_with_params =>
      (forall dbg hp hpo hd ovr input, parse_url dbg hp hpo hd ovr None input <> PPanic)
      /\ (forall dbg u ops, wf_b u = true -> Forall (fun b => b < 128) (ser u) -> Forall C15_Ser.op_ok ops ->
            exists u', QueryPairs.query_pairs_session dbg u ops = Some u')
  | P_accessors =>
      forall dbg u, wf_b u = true ->
        (forall p, exists i, Setters.position_index dbg u p = Some i /\ i <= nlen (ser u))
        /\ (forall p q, (C03_WF.pos_rank p <= C03_WF.pos_rank q)%nat -> exists s, Setters.index_range dbg u p q = Some s)
        /\ (forall p, exists s t, Setters.index_to dbg u p = Some s /\ Setters.index_from dbg u p = Some t)
        /\ (exists sch un pw hs pth q f,
              scheme u = Some sch /\ username dbg u = Some un /\ password dbg u = Some pw /\ host_str u = Some hs
              /\ path u = Some pth /\ query dbg u = Some q /\ fragment dbg u = Some f)
  | P_accessors2 =>
      forall dbg u, wf_b u = true ->
        has_authority dbg u <> None /\ cannot_be_a_base u <> None /\ host_of u <> None /\ domain u <> None
        /\ port_or_known_default u <> None
  | P_views =>
      forall dbg u, wf_b u = true ->
        (exists r, path_segments u = Some r) /\ (exists r, QueryPairs.query_pairs dbg u = Some r)
  | P_make_relative =>
      forall dbg b t, wf_b b = true -> wf_b t = true ->
        Forall (fun x => x < 128) (ser b) -> Forall (fun x => x < 128) (ser t) ->
        exists r, MakeRelative.make_relative dbg b t = Some r
  | P_origin =>
      forall dbg hp ho hd, C03_ReachParts.HostWf hp ho hd ->
        (forall c u, wf_b u = true ->
           (Origin.url_origin dbg hp ho hd c u = Origin.OPanic <-> C04_Origin.tuple_no_host_b u = true))
        /\ (forall c p v, Origin.url_parse dbg hp ho hd p = POk v -> Origin.url_origin dbg hp ho hd c v <> Origin.OPanic)
        /\ (forall c u, Origin.url_origin dbg hp ho hd c u <> Origin.OFuel)
  | P_setters =>
      forall dbg u, C06_Main.wfh u ->
        (forall f, exists u', Setters.set_fragment dbg u f = Some u')
        /\ (forall q, C06_Main.str_arg_ok q -> exists u', Setters.set_query dbg u q = Some u')
        /\ (forall p, C06_Main.port_arg_ok p -> exists r, Setters.set_port dbg u p = Some r)
        /\ (forall pw, exists r, Setters.set_password dbg u pw = Some r)
        /\ (forall un, exists r, Setters.set_username dbg u un = Some r)
        /\ (forall s, exists r, Setters.set_scheme dbg u s = Some r)
  | P_set_path =>
      forall dbg u p, wf_b u = true -> exists u', Setters.set_path dbg u p = Some u'
  | P_psm =>
      forall dbg u ops, wf_b u = true ->
        (Setters.path_segments_session dbg u ops = None <-> dbg = true /\ C04_SetPath.psm_assert_fails u = true)
  | P_set_host =>
      forall dbg hp hpo hd u h, wf_b u = true ->
        (Setters.set_host dbg hp hpo hd u h = None <-> dbg = true /\ h = None /\ C04_SetHost.known_c04_1 u = true)
  | P_set_ip_host =>
      forall dbg (hd : host -> list N) u h, wf_b u = true -> exists r, Setters.set_ip_host dbg hd u h = Some r
  | P_query_pairs_mut =>
      forall dbg u ops, wf_b u = true -> Forall (fun b => b < 128) (ser u) -> Forall C15_Ser.op_ok ops ->
        exists u', QueryPairs.query_pairs_session dbg u ops = Some u'
  | P_file_from =>
      forall p, FilePath.from_file_path p <> FilePath.FPanic /\ FilePath.from_directory_path p <> FilePath.FPanic
  | P_file_to =>
      forall dbg u, wf_b u = true -> FilePath.to_file_path dbg u <> FilePath.FPanic
  | P_host =>
      (forall idna input, C09_Reject.no_panic (Host.host_parse_x idna input))
      /\ (forall input, C09_Reject.no_panic (Host.host_parse_opaque_x input))
  | P_authority =>
      forall hp hpo hd ctx st se ser l dflt,
        parse_userinfo st ser l <> PPanic /\ parse_host_and_port hp hpo hd ctx st se ser l <> PPanic
        /\ parse_host hp hpo st l <> PPanic /\ parse_port ctx dflt l <> PPanic
  | P_path_state =>
      forall dbg ctx st ps k, k <= ps + 1 -> forall l ser ss pend hh, C04_PathFile.path_inv ps k ser ss ->
        C04_PathFile.path_res st ps k ser (parse_path_loop dbg ctx st ps l ser ss pend hh)
  | P_quirks_get =>
      forall dbg u, wf_b u = true ->
        (exists s, Setters.q_protocol u = Some s) /\ (exists s, Setters.q_username dbg u = Some s)
        /\ (exists s, Setters.q_password dbg u = Some s) /\ (exists s, Setters.q_host dbg u = Some s)
        /\ (exists s, Setters.q_hostname u = Some s) /\ (exists s, Setters.q_port dbg u = Some s)
        /\ (exists s, Setters.q_pathname u = Some s) /\ (exists s, Setters.q_search dbg u = Some s)
        /\ (exists s, Setters.q_hash dbg u = Some s)
  | P_quirks_set =>
      forall dbg hp hpo hd u, C06_Main.wfh u ->
        (forall v, exists r, Setters.q_set_protocol dbg u v = Some r)
        /\ (forall v, exists r, Setters.q_set_username dbg u v = Some r)
        /\ (forall v, exists r, Setters.q_set_password dbg u v = Some r)
        /\ (forall v, exists r, Setters.q_set_host dbg hp hpo hd u v = Some r)
        /\ (forall v, exists r, Setters.q_set_hostname dbg hp hpo hd u v = Some r)
        /\ (forall v, exists r, Setters.q_set_port dbg u v = Some r)
        /\ (forall v, exists u', Setters.q_set_pathname dbg u v = Some u')
        /\ (forall v, usv_list v -> exists u', Setters.q_set_search dbg u v = Some u')
        /\ (forall v, exists u', Setters.q_set_hash dbg u v = Some u')
  | P_new_opaque => forall c, Origin.new_opaque c <> Origin.OPanic
  | P_uts46 =>
      forall A cfg d deny hy dns p, C04_Uts46_Inner.AdapterNP A -> Idna_WalkEnc.AdapterUSV A -> bytes d ->
        (forall site, Uts46.to_ascii A cfg d deny hy dns <> U32_c13.Panic site)
        /\ (Idna_Known.Known_C11 A cfg d deny hy = false ->
            forall site, Uts46.to_user_interface A cfg d deny hy p <> Uts46.UIPanic site)
  | P_uts46_process =>
      forall A cfg ff p d deny hy w,
        C04_Uts46_Inner.AdapterNP A -> Idna_WalkEnc.AdapterUSV A -> bytes d ->
        (ff = false -> Idna_Known.Known_C11 A cfg d deny hy = false) ->
        match fst (fst (Uts46.process A cfg ff p d deny hy None None w)) with
        | Uts46.PPanic _ | Uts46.PSinkError => False | _ => True end
  | P_idna_wrappers =>
      forall A cfg, C04_Uts46_Inner.AdapterNP A -> Idna_WalkEnc.AdapterUSV A ->
        (forall c domain out, usv_list domain ->
           Idna_Known.Known_C11 A cfg (utf8_encode (Uts46.map_transitional domain (Uts46.transitional_processing c)))
             (Uts46.config_deny_list c) (Uts46.config_hyphens c) = false ->
           forall site, Uts46.idna_to_unicode A cfg c domain out <> U32_c13.Panic site)
        /\ (forall domain, usv_list domain ->
             (forall site, Uts46.domain_to_ascii A cfg domain <> U32_c13.Panic site) /\
             (forall site, Uts46.domain_to_ascii_strict A cfg domain <> U32_c13.Panic site) /\
             (Idna_Known.Known_C11 A cfg (utf8_encode domain) Uts46.DENY_EMPTY Uts46.HAllow = false ->
              forall site, Uts46.domain_to_unicode A cfg domain <> Uts46.UIPanic site))
  | P_idna_to_ascii =>
      forall A cfg c domain out,
        C04_Uts46_Inner.AdapterNP A -> Idna_WalkEnc.AdapterUSV A -> usv_list domain ->
        (U32_c13.is_panic (Uts46.idna_to_ascii A cfg c domain out) = true <->
         cfg = true /\ Uts46.cfg_verify_dns_length c = true /\ Uts46.is_ascii_l out = false /\
         exists s x, Uts46.process A cfg true Uts46.never_unicode
                       (utf8_encode (Uts46.map_transitional domain (Uts46.transitional_processing c)))
                       (Uts46.config_deny_list c) (Uts46.config_hyphens c) None None false = (Uts46.PWroteToSink, s, x))
  | P_verify_dns =>
      forall cfg d t, U32_c13.is_panic (Uts46.verify_dns_length_pub cfg d t) = true
                      <-> cfg = true /\ Uts46.is_ascii_l d = false
  | P_punycode =>
      forall cfg,
        (forall s site, Punycode.encode cfg s <> U32_c13.Panic site /\ Punycode.encode_str cfg s <> U32_c13.Panic site)
        /\ (forall p, ~ C13_Known.Known_C13_2 p ->
              forall site, Punycode.decode cfg p <> U32_c13.Panic site
                           /\ Punycode.decode_to_string cfg p <> U32_c13.Panic site)
  | P_pe_table =>
      (forall b, is_byte b -> (N.to_nat (b * T_ENC_STRIDE) + N.to_nat T_ENC_WIDTH <= length T_ENC_TABLE)%nat)
      /\ (forall s b, (128 <=? b) = true \/ aset_contains_o s b <> None)
  | P_aset =>
      (forall s x, aset_add_o s x = None <-> 128 <= x)
      /\ (forall s b, b < 128 -> aset_contains_o s b <> None /\ aset_add_o s b <> None /\ aset_remove_o s b <> None)
  | P_form =>
      forall bs, FormUrlencoded.parse_next bs <> FormUrlencoded.PFuel
                 /\ FormUrlencoded.parse bs = Some (C15_Parse.parse_spec bs)
                 /\ exists cs, FormUrlencoded.bser_chunks bs = Outcome_c15.Ok cs
  | P_form_ser =>
      forall target start ops, Forall C15_Ser.op_ok ops -> start <= nlen target ->
        ~ C15_Main.Known_C15_1 target start ops ->
        exists result, C15_Main.str_session target start ops = Outcome_c15.Ok result
  | P_data_process =>
      forall s, usv_list s ->
        (exists r, DataUrl.process s = Mime.Ok r)
        /\ (forall site, DataUrl.process_and_decode s <> DataUrl.PdPanic site)
        /\ DataUrl.process_and_decode s <> DataUrl.PdOutOfFuel
  | P_data_decode =>
      (forall u, DataUrl.decode_to_vec u <> DataUrl.DecPanic)
      /\ (forall (W E : Type) (write : W -> list N -> W * option E) base64 w body,
            snd (Base64.data_url_decode write base64 w body) <> Base64.BodyPanic)
  | P_base64 =>
      forall (W E : Type) (write : W -> list N -> W * option E) w body,
        snd (Base64.decode_without_base64 write w body) <> Base64.BodyPanic
        /\ snd (Base64.decode_with_base64 write w body) <> Base64.BodyPanic
  | P_mime =>
      (forall s, usv_list s -> exists r, Mime.parse s = Mime.Ok r)
      /\ (forall m, C19_Pure.usv_mime m -> exists d, Mime.display m = Mime.Ok d)
  | P_check_invariants =>
      (* Url::check_invariants (transcription: Proofs/C04_CheckInv.v) on a record with wf_b and host_text_ok: it panics
         exactly when its structural part passes and the re-parse fails (.expect("Failed to parse myself?")); `other` is
         the outcome of Url::parse(self.as_str()), whose Ok values are well-formed *)
      forall hd u other, wf_b u = true -> C06_Suffix.host_text_ok u ->
        (forall o, other = POk o -> wf_b o = true) ->
        (C04_CheckInv.check_invariants hd u other = C04_CheckInv.CPanic
         <-> (has_authority_b u && negb (C04_CheckInv.ip_text_ok hd u) = false /\ forall o, other <> POk o))
  end.

(* ---------------------------------------------------------------- every claim holds *)
Lemma accessors2_hold dbg u : wf_b u = true ->
  has_authority dbg u <> None /\ cannot_be_a_base u <> None /\ host_of u <> None /\ domain u <> None
  /\ port_or_known_default u <> None.
Proof.
  intros W. split; [rewrite (C03_WF.has_authority_eval dbg u W); discriminate|].
  split; [rewrite (C06_Steps.cannot_be_a_base_eval u W); discriminate|].
  destruct (C04_Rest.host_of_some dbg u W) as [h Eh].
  split; [rewrite Eh; discriminate|]. split.
  - unfold host_of in Eh. unfold domain. destruct (hosti u); try discriminate.
    destruct (u_slice u (host_start u) (host_end u)); [discriminate | discriminate Eh].
  - unfold port_or_known_default. destruct (port u); [discriminate|]. rewrite (C03_WF.scheme_eval u W). discriminate.
Qed.

Theorem claims_hold : forall i, claim i.
Proof.
  destruct i; cbn [claim].
  - exact I.
  - exact C04_Chain.parse_no_base_no_panic.
  - exact C04_ParseFile7.parse_url_panic_iff.
  - split; [exact C04_Chain.parse_no_base_no_panic|].
    intros dbg u ops W A O. destruct (C15.C15_url dbg u ops W A O) as (u' & H & _). exists u'. exact H.
  - intros dbg u H. split; [|split; [|split]].
    + intros p. exact (C03.C03_index dbg u p H).
    + exact (proj1 (C03.C03_slices dbg u H)).
    + intros p. destruct (proj1 (proj2 (C03.C03_slices dbg u H)) p) as (s & t & Hs & Ht & _). exists s, t. tauto.
    + destruct (C03.C03_concat dbg u H) as (sch & un & pw & hs & pth & q & f & H1 & H2 & H3 & H4 & H5 & H6 & H7 & _).
      exists sch, un, pw, hs, pth, q, f. tauto.
  - exact accessors2_hold.
  - exact C04_Rest.views_total.
  - exact C04_Rest.make_relative_total.
  - intros dbg hp ho hd HW. split; [|split].
    + intros c u W. rewrite C04_Origin.tuple_no_host_spec. exact (C04_Origin.url_origin_panic_iff dbg hp ho hd HW c u W).
    + exact (C04_Origin.url_origin_parsed_no_panic dbg hp ho hd HW).
    + intros c u. exact (C16_Colons.fuel_always_enough dbg hp ho hd c u).
  - exact C06.C06_nopanic.
  - intros dbg u p W. exact (C04_SetPath.set_path_total dbg u p W).
  - intros dbg u ops W. exact (C04_SetPath.session_panics_iff dbg u ops W).
  - intros dbg hp hpo hd u h W. exact (C04_SetHost.set_host_panics_iff dbg hp hpo hd u h W).
  - intros dbg hd u h W. exact (C04_SetHost.set_ip_host_total dbg (fun _ => HostT.Err EmptyHost) (fun _ => HostT.Err EmptyHost) hd u h W).
  - intros dbg u ops W A O. destruct (C15.C15_url dbg u ops W A O) as (u' & H & _). exists u'. exact H.
  - exact C04_Rest.from_file_path_no_panic.
  - exact C04_Rest.to_file_path_no_panic.
  - exact C09.C09_total.
  - intros hp hpo hd ctx st se ser l dflt.
    split; [exact (C04_Parse.parse_userinfo_no_panic st ser l)|].
    split; [exact (C04_Parse.parse_host_and_port_no_panic hp hpo hd ctx st se ser l)|].
    split; [exact (C04_Parse.parse_host_no_panic hp hpo st l) | exact (C04_Parse.parse_port_no_panic ctx dflt l)].
  - exact C04_PathCtx.loop_ctx.
  - exact C04_Rest.quirks_getters_total.
  - exact C04_Rest.quirks_setters_total.
  - exact C04_Origin.new_opaque_no_panic.
  - intros A cfg d deny hy dns p HN HU Hb. exact (Idna_WalkEnc.uts46_no_panic A cfg d deny hy dns p HN HU Hb).
  - exact Idna_WalkEnc.uts46_process_no_panic.
  - intros A cfg HN HU. split.
    + intros c domain out Hd HK. exact (Idna_WalkDepr.idna_to_unicode_no_panic A cfg HN HU c domain out Hd HK).
    + intros domain Hd. exact (Idna_WalkDepr.lib_wrappers_no_panic A cfg HN HU domain Hd).
  - intros A cfg c domain out HN HU Hd. exact (Idna_WalkDepr.idna_to_ascii_panic_iff A cfg HN HU c domain out Hd).
  - intros cfg d t. unfold Uts46.verify_dns_length_pub. destruct cfg; cbn [andb].
    + destruct (Uts46.is_ascii_l d); cbn [negb U32_c13.is_panic]; split; try tauto; try discriminate.
      intros (_ & H). discriminate H.
    + cbn [U32_c13.is_panic]. split; [discriminate | intros (H & _); discriminate H].
  - intros cfg. destruct (C13.C13_safe cfg) as [He Hd]. split.
    + intros s site. destruct (He s) as [[H1|H1] [H2|H2]]; rewrite H1, H2; split; discriminate.
    + intros p Hk site. destruct (Hd p Hk) as (H1 & H2 & _). exact (conj (H1 site) (H2 site)).
  - exact (conj C04_NoPanic.enc_table_slice_in_range C04_NoPanic.should_encode_no_panic).
  - exact (conj C14.C14_add_panics_iff C04_NoPanic.aset_ops_no_panic).
  - intros bs. destruct (C15.C15_views bs) as (H1 & _ & (cs & H3 & _) & _).
    destruct (C15.C15_total bs [] []) as (H4 & _).
    split; [exact H1|]. split; [exact H4|]. exists cs. exact H3.
  - intros target start ops Ho Hs Hk. destruct (C15.C15_suffix target start ops Ho Hs Hk) as (r & Hr & _).
    exists r. exact Hr.
  - exact C17_Main.process_and_decode_total.
  - split; [exact C17_Decode.decode_to_vec_no_panic|].
    intros W E write base64 w body. exact (C04_NoPanic.data_url_decode_no_panic write base64 w body).
  - intros W E write w body. exact (conj (C04_NoPanic.dwo_no_panic write w body) (C04_NoPanic.dwb_no_panic write w body)).
  - exact C19.C19_total.
  - exact C04_CheckInv.check_invariants_panic_iff.
Qed.

(* ---------------------------------------------------------------- the table *)
Record row := R { r_crate : string; r_name : string; r_kind : kind; r_claim : claim_id; r_theorem : string }.

Local Open Scope string_scope.
Definition table : list row := [
  R "url" "ParseOptions::base_url" KByType P_trivial "-";
  R "url" "ParseOptions::encoding_override" KByType P_trivial "-";
  R "url" "ParseOptions::syntax_violation_callback" KHarness P_trivial "-";
  R "url" "ParseOptions::parse" KExact P_parse_iff "C04_parse_panic_iff";
  R "url" "Url::parse" KTheorem P_parse_nobase "C04_parse_no_base_no_panic";
  R "url" "Url::parse_with_params" KTheorem P_parse_with_params "C04_parse_no_base_no_panic + C15_url";
  R "url" "Url::join" KExact P_parse_iff "C04_parse_panic_iff";
  R "url" "Url::make_relative" KTheorem P_make_relative "C04_no_panic_inventory (claim P_make_relative)";
  R "url" "Url::options" KByType P_trivial "-";
  R "url" "Url::as_str" KByType P_trivial "-";
  R "url" "Url::into_string" KByType P_trivial "-";
  R "url" "Url::check_invariants" KExact P_check_invariants "C04_check_invariants";
  R "url" "Url::origin" KExact P_origin "C04_origin_panic_iff";
  R "url" "Url::scheme" KTheorem P_accessors "C04_no_panic_accessors";
  R "url" "Url::is_special" KTheorem P_accessors "C04_no_panic_accessors";
  R "url" "Url::has_authority" KTheorem P_accessors2 "C04_no_panic_inventory (claim P_accessors2)";
  R "url" "Url::authority" KTheorem P_accessors "C04_no_panic_accessors";
  R "url" "Url::cannot_be_a_base" KTheorem P_accessors2 "C04_no_panic_inventory (claim P_accessors2)";
  R "url" "Url::username" KTheorem P_accessors "C04_no_panic_accessors";
  R "url" "Url::password" KTheorem P_accessors "C04_no_panic_accessors";
  R "url" "Url::has_host" KByType P_trivial "-";
  R "url" "Url::host_str" KTheorem P_accessors "C04_no_panic_accessors";
  R "url" "Url::host" KTheorem P_accessors2 "C04_no_panic_inventory (claim P_accessors2)";
  R "url" "Url::domain" KTheorem P_accessors2 "C04_no_panic_inventory (claim P_accessors2)";
  R "url" "Url::port" KByType P_trivial "-";
  R "url" "Url::port_or_known_default" KTheorem P_accessors2 "C04_no_panic_inventory (claim P_accessors2)";
  R "url" "Url::socket_addrs" KHarness P_trivial "-";
  R "url" "Url::path" KTheorem P_accessors "C04_no_panic_accessors";
  R "url" "Url::path_segments" KTheorem P_views "C04_no_panic_inventory (claim P_views)";
  R "url" "Url::query" KTheorem P_accessors "C04_no_panic_accessors";
  R "url" "Url::query_pairs" KTheorem P_views "C04_no_panic_inventory (claim P_views)";
  R "url" "Url::fragment" KTheorem P_accessors "C04_no_panic_accessors";
  R "url" "Url::set_fragment" KTheorem P_setters "C04_no_panic_setters";
  R "url" "Url::set_query" KTheorem P_setters "C04_no_panic_setters";
  R "url" "Url::query_pairs_mut" KTheorem P_query_pairs_mut "C15_url";
  R "url" "Url::set_path" KTheorem P_set_path "C04_no_panic_setters2";
  R "url" "Url::path_segments_mut" KExact P_psm "C04_no_panic_setters2";
  R "url" "Url::set_port" KTheorem P_setters "C04_no_panic_setters";
  R "url" "Url::set_host" KExact P_set_host "C04_no_panic_setters2";
  R "url" "Url::set_ip_host" KTheorem P_set_ip_host "C04_no_panic_setters2";
  R "url" "Url::set_password" KTheorem P_setters "C04_no_panic_setters";
  R "url" "Url::set_username" KTheorem P_setters "C04_no_panic_setters";
  R "url" "Url::set_scheme" KTheorem P_setters "C04_no_panic_setters";
  R "url" "Url::from_file_path" KTheorem P_file_from "C04_no_panic_inventory (claim P_file_from)";
  R "url" "Url::from_directory_path" KTheorem P_file_from "C04_no_panic_inventory (claim P_file_from)";
  R "url" "Url::serialize_internal" KHarness P_trivial "-";
  R "url" "Url::deserialize_internal" KHarness P_trivial "-";
  R "url" "Url::to_file_path" KTheorem P_file_to "C04_no_panic_inventory (claim P_file_to)";
  R "url" "Host::to_owned" KByType P_trivial "-";
  R "url" "Host::parse" KTheorem P_host "C04_no_panic_host";
  R "url" "Host::parse_opaque" KTheorem P_host "C04_no_panic_host";
  R "url" "origin::url_origin" KExact P_origin "C04_origin_panic_iff";
  R "url" "Origin::new_opaque" KTheorem P_new_opaque "C04_no_panic_inventory (claim P_new_opaque)";
  R "url" "Origin::is_tuple" KByType P_trivial "-";
  R "url" "Origin::ascii_serialization" KByType P_trivial "-";
  R "url" "Origin::unicode_serialization" KOutside P_idna_wrappers "C04_no_panic_idna_wrappers";
  R "url" "SyntaxViolation::description" KByType P_trivial "-";
  R "url" "SchemeType::is_special" KByType P_trivial "-";
  R "url" "SchemeType::is_file" KByType P_trivial "-";
  R "url" "parser::default_port" KByType P_trivial "-";
  R "url" "Input::new_no_trim" KByType P_trivial "-";
  R "url" "Input::new_trim_tab_and_newlines" KByType P_trivial "-";
  R "url" "Input::new_trim_c0_control_and_space" KByType P_trivial "-";
  R "url" "Input::is_empty" KByType P_trivial "-";
  R "url" "Input::split_prefix" KByType P_trivial "-";
  R "url" "Parser::for_setter" KByType P_trivial "-";
  R "url" "Parser::parse_url" KExact P_parse_iff "C04_parse_panic_iff";
  R "url" "Parser::parse_scheme" KByType P_trivial "-";
  R "url" "Parser::parse_host" KTheorem P_authority "C04_no_panic_authority_states";
  R "url" "Parser::file_host" KByType P_trivial "-";
  R "url" "Parser::parse_port" KTheorem P_authority "C04_no_panic_authority_states";
  R "url" "Parser::parse_path_start" KTheorem P_path_state "C04_path_state_total_ctx";
  R "url" "Parser::parse_path" KTheorem P_path_state "C04_path_state_total_ctx";
  R "url" "Parser::parse_cannot_be_a_base_path" KByType P_trivial "-";
  R "url" "Parser::parse_query" KByType P_trivial "-";
  R "url" "Parser::parse_fragment" KByType P_trivial "-";
  R "url" "parser::ascii_alpha" KByType P_trivial "-";
  R "url" "parser::to_u32" KByType P_trivial "-";
  R "url" "parser::is_windows_drive_letter" KByType P_trivial "-";
  R "url" "path_segments::new" KExact P_psm "C04_no_panic_setters2";
  R "url" "PathSegmentsMut::clear" KExact P_psm "C04_no_panic_setters2";
  R "url" "PathSegmentsMut::pop_if_empty" KExact P_psm "C04_no_panic_setters2";
  R "url" "PathSegmentsMut::pop" KExact P_psm "C04_no_panic_setters2";
  R "url" "PathSegmentsMut::push" KExact P_psm "C04_no_panic_setters2";
  R "url" "PathSegmentsMut::extend" KExact P_psm "C04_no_panic_setters2";
  R "url" "quirks::internal_components" KByType P_trivial "-";
  R "url" "quirks::domain_to_ascii" KTheorem P_idna_wrappers "C04_no_panic_idna_wrappers";
  R "url" "quirks::domain_to_unicode" KOutside P_idna_wrappers "C04_no_panic_idna_wrappers";
  R "url" "quirks::href" KByType P_trivial "-";
  R "url" "quirks::set_href" KTheorem P_parse_nobase "C04_parse_no_base_no_panic";
  R "url" "quirks::origin" KExact P_origin "C04_origin_panic_iff";
  R "url" "quirks::protocol" KTheorem P_quirks_get "C04_no_panic_quirks";
  R "url" "quirks::set_protocol" KTheorem P_quirks_set "C04_no_panic_quirks";
  R "url" "quirks::username" KTheorem P_quirks_get "C04_no_panic_quirks";
  R "url" "quirks::set_username" KTheorem P_quirks_set "C04_no_panic_quirks";
  R "url" "quirks::password" KTheorem P_quirks_get "C04_no_panic_quirks";
  R "url" "quirks::set_password" KTheorem P_quirks_set "C04_no_panic_quirks";
  R "url" "quirks::host" KTheorem P_quirks_get "C04_no_panic_quirks";
  R "url" "quirks::set_host" KTheorem P_quirks_set "C04_no_panic_quirks";
  R "url" "quirks::hostname" KTheorem P_quirks_get "C04_no_panic_quirks";
  R "url" "quirks::set_hostname" KTheorem P_quirks_set "C04_no_panic_quirks";
  R "url" "quirks::port" KTheorem P_quirks_get "C04_no_panic_quirks";
  R "url" "quirks::set_port" KTheorem P_quirks_set "C04_no_panic_quirks";
  R "url" "quirks::pathname" KTheorem P_quirks_get "C04_no_panic_quirks";
  R "url" "quirks::set_pathname" KTheorem P_quirks_set "C04_no_panic_quirks";
  R "url" "quirks::search" KTheorem P_quirks_get "C04_no_panic_quirks";
  R "url" "quirks::set_search" KTheorem P_quirks_set "C04_no_panic_quirks";
  R "url" "quirks::hash" KTheorem P_quirks_get "C04_no_panic_quirks";
  R "url" "quirks::set_hash" KTheorem P_quirks_set "C04_no_panic_quirks";
  R "idna" "domain_to_ascii_cow" KTheorem P_uts46 "C04_no_panic_uts46";
  R "idna" "domain_to_ascii" KTheorem P_idna_wrappers "C04_no_panic_idna_wrappers";
  R "idna" "domain_to_ascii_strict" KTheorem P_idna_wrappers "C04_no_panic_idna_wrappers";
  R "idna" "domain_to_unicode" KOutside P_idna_wrappers "C04_no_panic_idna_wrappers";
  R "idna" "Idna::new" KByType P_trivial "-";
  R "idna" "Idna::to_ascii" KExact P_idna_to_ascii "C04_13_panic_iff";
  R "idna" "Idna::to_unicode" KOutside P_idna_wrappers "C04_no_panic_idna_wrappers";
  R "idna" "Config::use_std3_ascii_rules" KByType P_trivial "-";
  R "idna" "Config::transitional_processing" KByType P_trivial "-";
  R "idna" "Config::verify_dns_length" KByType P_trivial "-";
  R "idna" "Config::check_hyphens" KByType P_trivial "-";
  R "idna" "Config::use_idna_2008_rules" KDocumented P_trivial "-";
  R "idna" "Config::to_ascii" KExact P_idna_to_ascii "C04_13_panic_iff";
  R "idna" "Config::to_unicode" KOutside P_idna_wrappers "C04_no_panic_idna_wrappers";
  R "idna" "punycode::decode_to_string" KOutside P_punycode "C04_no_panic_punycode";
  R "idna" "punycode::decode" KOutside P_punycode "C04_no_panic_punycode";
  R "idna" "punycode::encode_str" KTheorem P_punycode "C04_no_panic_punycode";
  R "idna" "punycode::encode" KTheorem P_punycode "C04_no_panic_punycode";
  R "idna" "AsciiDenyList::new" KDocumented P_trivial "-";
  R "idna" "uts46::verify_dns_length" KExact P_verify_dns "C04_no_panic_inventory (claim P_verify_dns)";
  R "idna" "Uts46::new" KByType P_trivial "-";
  R "idna" "Uts46::to_ascii" KTheorem P_uts46 "C04_no_panic_uts46";
  R "idna" "Uts46::to_unicode" KOutside P_uts46 "C04_no_panic_uts46";
  R "idna" "Uts46::to_user_interface" KOutside P_uts46 "C04_no_panic_uts46";
  R "idna" "Uts46::process" KOutside P_uts46_process "C04_no_panic_uts46_process";
  R "percent_encoding" "percent_encode_byte" KTheorem P_pe_table "C04_no_panic_percent_encoding";
  R "percent_encoding" "percent_encode" KTheorem P_pe_table "C04_no_panic_percent_encoding";
  R "percent_encoding" "utf8_percent_encode" KTheorem P_pe_table "C04_no_panic_percent_encoding";
  R "percent_encoding" "percent_decode_str" KByType P_trivial "-";
  R "percent_encoding" "percent_decode" KByType P_trivial "-";
  R "percent_encoding" "PercentDecode::decode_utf8" KByType P_trivial "-";
  R "percent_encoding" "PercentDecode::decode_utf8_lossy" KByType P_trivial "-";
  R "percent_encoding" "AsciiSet::add" KExact P_aset "C04_no_panic_percent_encoding";
  R "percent_encoding" "AsciiSet::remove" KExact P_aset "C04_no_panic_percent_encoding";
  R "percent_encoding" "AsciiSet::union" KByType P_trivial "-";
  R "percent_encoding" "AsciiSet::complement" KByType P_trivial "-";
  R "form_urlencoded" "parse" KTheorem P_form "C04_no_panic_form_urlencoded";
  R "form_urlencoded" "Parse::into_owned" KTheorem P_form "C04_no_panic_form_urlencoded";
  R "form_urlencoded" "byte_serialize" KTheorem P_form "C04_no_panic_form_urlencoded";
  R "form_urlencoded" "Serializer::new" KByType P_trivial "-";
  R "form_urlencoded" "Serializer::for_suffix" KOutside P_form_ser "C04_no_panic_form_urlencoded";
  R "form_urlencoded" "Serializer::clear" KOutside P_form_ser "C04_no_panic_form_urlencoded";
  R "form_urlencoded" "Serializer::encoding_override" KByType P_trivial "-";
  R "form_urlencoded" "Serializer::append_pair" KOutside P_form_ser "C04_no_panic_form_urlencoded";
  R "form_urlencoded" "Serializer::append_key_only" KOutside P_form_ser "C04_no_panic_form_urlencoded";
  R "form_urlencoded" "Serializer::extend_pairs" KOutside P_form_ser "C04_no_panic_form_urlencoded";
  R "form_urlencoded" "Serializer::extend_keys_only" KOutside P_form_ser "C04_no_panic_form_urlencoded";
  R "form_urlencoded" "Serializer::finish" KOutside P_form_ser "C04_no_panic_form_urlencoded";
  R "data_url" "DataUrl::process" KTheorem P_data_process "C17_total";
  R "data_url" "DataUrl::mime_type" KByType P_trivial "-";
  R "data_url" "DataUrl::decode" KTheorem P_data_decode "C04_no_panic_data_url";
  R "data_url" "DataUrl::decode_to_vec" KTheorem P_data_decode "C04_no_panic_data_url";
  R "data_url" "FragmentIdentifier::to_percent_encoded" KByType P_trivial "-";
  R "data_url" "forgiving_base64::decode_to_vec" KTheorem P_base64 "C04_no_panic_data_url";
  R "data_url" "Decoder::new" KByType P_trivial "-";
  R "data_url" "Decoder::feed" KTheorem P_base64 "C04_no_panic_data_url";
  R "data_url" "Decoder::finish" KTheorem P_base64 "C04_no_panic_data_url";
  R "data_url" "Mime::get_parameter" KByType P_trivial "-"

].

(* KByType functions that DO contain a panic macro of their own, looked at by hand:
   Url::check_invariants - its assert! / assert_eq! are LOCAL macros that return Err(String) (lib.rs), not panics (the row is
     KExact: claim P_check_invariants; the entry is kept, harmless);
   Parser::parse_scheme - debug_assert!(self.serialization.is_empty()): true at its three call sites (a fresh parser) *)
Definition bytype_exceptions : list string := ["Url::check_invariants"; "Parser::parse_scheme"].
Local Close Scope string_scope.

Definition row_key (r : row) : list N * list N :=
  (C04_Inventory.bytes_of_string (r_crate r), C04_Inventory.bytes_of_string (r_name r)).

Definition trivial_kind (k : kind) : bool :=
  match k with KByType | KDocumented | KHarness => true | _ => false end.

Definition has_panic_macro (name : string) : bool :=
  existsb (fun p => String.eqb (snd (fst (fst p))) name) C04_Inventory.audited_panic_sites.

Definition count_kind (k : kind) : nat := length (filter (fun r => kind_eqb (r_kind r) k) table).

(* every regenerated public function has exactly one row, in source order *)
Theorem table_complete : map row_key table = T_C04_API.
Proof. vm_compute. reflexivity. Qed.

(* exactly the rows of kind KByType / KDocumented / KHarness carry the trivial claim *)
Theorem kinds_consistent :
  forallb (fun r => Bool.eqb (trivial_kind (r_kind r)) (claim_eqb_trivial (r_claim r))) table = true.
Proof. vm_compute. reflexivity. Qed.

(* no KByType function contains a panic macro in the regenerated panic-site inventory, the listed exceptions aside *)
Theorem bytype_no_panic_macro :
  forallb (fun r => negb (kind_eqb (r_kind r) KByType) || negb (has_panic_macro (r_name r))
                    || existsb (String.eqb (r_name r)) bytype_exceptions) table = true.
Proof. vm_compute. reflexivity. Qed.

(* the claim of every row holds *)
Theorem table_sound : Forall (fun r => claim (r_claim r)) table.
Proof. apply Forall_forall. intros r _. apply claims_hold. Qed.

Theorem table_counts :
  length table = 167%nat /\ count_kind KTheorem = 76%nat /\ count_kind KExact = 20%nat /\ count_kind KOutside = 17%nat
  /\ count_kind KByType = 48%nat /\ count_kind KDocumented = 2%nat /\ count_kind KHarness = 4%nat.
Proof. vm_compute. repeat split. Qed.
