(* Proofs/C01_EqSpHost.v - the host hypotheses of the C01 classes hold for the host functions of the two
   sides as they are:
   * `host_agree` (authority class, Host::parse_opaque + Display against the Standard's host parser with
     isOpaque = true) on EVERY scalar-value string - the '['-led literals included (C09: the model's IPv6
     parser and serializer are the Standard's);
   * `host_agree_sp` (special class, Host::parse + Display against the Standard's host parser with
     isOpaque = false) on every scalar-value string, the IDNA step being the same oracle on both sides
     whose outputs are ASCII outside the deny list (the deny list is an argument of the idna call in
     host.rs; the Standard checks the forbidden domain code points after domain to ASCII). *)
From RU Require Import Base.Prelude Base.Utf8 Model.PercentEncoding Model.HostT Model.Host Model.UrlRecord
  Spec.Whatwg Spec.WhatwgHost Spec.WhatwgHostParse Proofs.C09_Host Proofs.C09_Wf Proofs.C09_V4spec
  Proofs.C09_V6spec Proofs.C09_V6sim Proofs.C09_V6total Proofs.C01_EqAuthModel Proofs.C01_EqAuthHost
  Proofs.C01_EqSpModel.

(* '['-led literals *)
Lemma literal_agree idna (o : bool) s : Host.starts_with 91 s = true ->
  match literal_result s, spec_host_parser idna o s with
  | Ok h, Some sh => exists a, h = HIpv6 a /\ sh = SIpv6 a /\ wf8 a
  | Err _, None => True
  | _, _ => False
  end.
Proof.
  destruct s as [|c rest]; [discriminate|]. cbn [Host.starts_with]. intros H. apply N.eqb_eq in H. subst c.
  unfold literal_result. cbn [spec_host_parser tl].
  change (ends_with_cp 93 (91 :: rest)) with (Host.ends_with 93 (91 :: rest)).
  destruct (Host.ends_with 93 (91 :: rest)); [|exact I].
  pose proof (ipv6_parse_spec_bytes (removelast rest)) as P.
  destruct (Spec.ipv6_parse (removelast rest)) as [a|]; [|exact I].
  exists a. split; [reflexivity|]. split; [reflexivity|]. exact (parse_ipv6addr_wf _ _ P).
Qed.

Lemma ends_with_byte_snoc' x b c : ends_with_byte b (x ++ [c]) = (c =? b).
Proof. unfold ends_with_byte. rewrite rev_app_distr. reflexivity. Qed.

(* the opaque host parser: every string *)
Theorem host_agree_real_all idna s : usv_list s ->
  host_agree host_parse_opaque host_display (spec_host_parser idna) spec_host_serializer s.
Proof.
  intros Hu. destruct (Host.starts_with 91 s) eqn:Hb; [|exact (host_agree_real idna s Hu Hb)].
  unfold host_agree, host_parsing. rewrite (proj2 (literal_spec idna s Hb)).
  pose proof (literal_agree idna true s Hb) as L.
  destruct (literal_result s) as [h|e]; destruct (spec_host_parser idna true s) as [sh|]; try contradiction; [|exact I].
  destruct L as (a & -> & -> & W). cbn [host_display spec_host_serializer]. rewrite (write_ipv6_spec a W).
  destruct s as [|c r]; [discriminate Hb|].
  repeat split; try reflexivity; intros K; discriminate K.
Qed.

(* Host::parse *)
Lemma hex_val_spec c : hex_val c = if Spec.ascii_hex_digit c then Some (Spec.digit_value c) else None.
Proof.
  unfold hex_val, Spec.ascii_hex_digit, Spec.digit_value, Spec.ascii_digit, is_digit.
  destruct ((48 <=? c) && (c <=? 57)) eqn:E1; [reflexivity|]. cbn [orb].
  destruct ((65 <=? c) && (c <=? 70)) eqn:E2; cbn [orb].
  - replace (c <=? 70) with true by lia. reflexivity.
  - destruct ((97 <=? c) && (c <=? 102)) eqn:E3; [|reflexivity]. replace (c <=? 70) with false by lia. reflexivity.
Qed.

Lemma decode_spec_le n : forall bs, (length bs <= n)%nat -> decode bs = spec_percent_decode bs.
Proof.
  induction n as [|n IH]; intros bs Hl.
  - destruct bs; [reflexivity | cbn [length] in Hl; lia].
  - destruct bs as [|b r]; [reflexivity|]. cbn [length] in Hl. cbn [decode spec_percent_decode].
    assert (decode r = spec_percent_decode r) as Er by (apply IH; lia).
    destruct (b =? 37); [|rewrite Er; reflexivity].
    destruct r as [|h [|l r']]; try (rewrite Er; reflexivity).
    unfold after_percent. rewrite !hex_val_spec.
    destruct (Spec.ascii_hex_digit h); cbn [andb]; [|rewrite Er; reflexivity].
    destruct (Spec.ascii_hex_digit l); [|rewrite Er; reflexivity].
    f_equal. apply IH. cbn [length] in Hl. lia.
Qed.

Lemma decode_spec bs : decode bs = spec_percent_decode bs.
Proof. apply (decode_spec_le (length bs)). lia. Qed.

Lemma dec_u8_dec_sweep : all_below 256 (fun x => list_eqb (dec_u8 x) (dec x)) = true.
Proof. vm_compute. reflexivity. Qed.

Lemma ipv4_display_spec a : a < 4294967296 -> ipv4_display a = spec_ipv4_serialize a.
Proof.
  intros H. unfold ipv4_display, spec_ipv4_serialize.
  assert (forall x, x < 256 -> dec_u8 x = dec x) as D.
  { intros x Hx. apply list_eqb_spec. exact (all_below_spec 256 _ dec_u8_dec_sweep x Hx). }
  rewrite (D (a / 16777216)) by (apply N.div_lt_upper_bound; lia).
  rewrite (D ((a / 65536) mod 256)) by (apply N.mod_lt; lia).
  rewrite (D ((a / 256) mod 256)) by (apply N.mod_lt; lia).
  rewrite (D (a mod 256)) by (apply N.mod_lt; lia). reflexivity.
Qed.

Lemma not_in_existsb (f : N -> bool) d : Forall (fun c => f c = false) d -> existsb f d = false.
Proof. induction 1 as [|c r Hc _ IH]; [reflexivity|]. cbn [existsb]. rewrite Hc, IH. reflexivity. Qed.

Lemma forall_head (P : N -> Prop) d c : Forall P d -> starts_with_cp c d = true -> P c.
Proof. destruct d as [|x r]; [discriminate|]. cbn [starts_with_cp]. intros H E. apply N.eqb_eq in E. subst x. inversion H; assumption. Qed.

Lemma forall_last (P : N -> Prop) d c : Forall P d -> ends_with_byte c d = true -> P c.
Proof.
  unfold ends_with_byte. intros H E. apply Forall_rev in H. destruct (rev d) as [|x r]; [discriminate|].
  apply N.eqb_eq in E. subst x. inversion H; assumption.
Qed.

Lemma ipv4_display_edges a : a < 4294967296 ->
  starts_with_cp 58 (ipv4_display a) = false /\ ipv4_display a <> [] /\ ends_with_byte 47 (ipv4_display a) = false.
Proof.
  intros H. destruct (ipv4_display_digits a H) as (Hd & Hn & _).
  assert (forall c, In c (ipv4_display a) -> c <> 58 /\ c <> 47) as Hc.
  { intros c Hin. rewrite Forall_forall in Hd. destruct (Hd c Hin) as [K|K]; [unfold is_digit in K; lia | subst c; lia]. }
  split; [|split].
  - destruct (ipv4_display a) as [|x r]; [reflexivity|]. cbn [starts_with_cp].
    destruct (Hc x (or_introl eq_refl)) as [K _]. apply N.eqb_neq. exact K.
  - exact Hn.
  - unfold ends_with_byte. pose proof (fun c Hin => Hc c (proj2 (in_rev _ c) Hin)) as Hc'.
    destruct (rev (ipv4_display a)) as [|x r]; [reflexivity|].
    destruct (Hc' x (or_introl eq_refl)) as [_ K]. apply N.eqb_neq. exact K.
Qed.

Lemma spec_parser_not_bracket_gen idna s : Host.starts_with 91 s = false ->
  spec_host_parser idna false s =
  match idna (spec_percent_decode (utf8_encode s)) with
  | None => None
  | Some ascii_domain =>
      match ascii_domain with
      | [] => None
      | _ =>
          if existsb Spec.forbidden_domain_code_point ascii_domain then None
          else if Spec.ends_in_a_number ascii_domain
          then match Spec.ipv4_parse ascii_domain with
               | Some a => Some (SIpv4 a)
               | None => None
               end
          else Some (SDomain ascii_domain)
      end
  end.
Proof.
  destruct s as [|c r]; [reflexivity|]. cbn [Host.starts_with]. intros H.
  destruct c as [|p]; [reflexivity|].
  do 7 (destruct p as [p|p|]; try reflexivity). discriminate H.
Qed.

Theorem host_agree_special idna :
  (forall bs d, idna bs = Some d -> Forall dom_char_ok d) ->
  forall s, usv_list s ->
  host_agree_sp (host_parse idna) host_display (spec_host_parser idna) spec_host_serializer s.
Proof.
  intros Hout s Hu. unfold host_agree_sp. destruct s as [|c0 r0]; [exact I|]. cbv beta iota.
  remember (c0 :: r0) as s eqn:Es. unfold host_parsing.
  destruct (Host.starts_with 91 s) eqn:Hb.
  - (* IPv6 literal *)
    rewrite (proj1 (literal_spec idna s Hb)).
    pose proof (literal_agree idna false s Hb) as L.
    destruct (literal_result s) as [h|e]; destruct (spec_host_parser idna false s) as [sh|]; try contradiction; [|exact I].
    destruct L as (a & -> & -> & W). cbn [host_display spec_host_serializer]. rewrite (write_ipv6_spec a W).
    split; [reflexivity|]. split; [reflexivity|]. split; [discriminate|]. split; [discriminate|].
    rewrite app_assoc. apply ends_with_byte_snoc'.
  - (* domain or IPv4 *)
    rewrite (spec_parser_not_bracket_gen idna s Hb).
    unfold host_parse, host_parse_x. rewrite Hb. rewrite decode_spec.
    destruct (idna (spec_percent_decode (utf8_encode s))) as [d|] eqn:Ei; [|exact I].
    pose proof (Hout _ _ Ei) as Hd.
    destruct d as [|d0 dr]; [exact I|]. cbv iota. remember (d0 :: dr) as d eqn:Ed.
    assert (existsb Spec.forbidden_domain_code_point d = false) as Ef.
    { apply not_in_existsb. eapply Forall_impl; [|exact Hd]. intros c Hc. destruct (dom_char_facts c Hc) as (_ & _ & K & _). exact K. }
    rewrite Ef. rewrite <- (ends_in_a_number_spec d).
    assert (d <> []) as Hne by (rewrite Ed; discriminate).
    destruct (ends_in_a_number d) eqn:En.
    + rewrite (parse_ipv4addr_spec d Hne).
      destruct (Spec.ipv4_parse d) as [a|] eqn:E4; cbn [lift4 xr_map xr_result]; [|exact I].
      assert (a < 4294967296) as Ha.
      { apply (parse_ipv4addr_bound d). rewrite (parse_ipv4addr_spec d Hne), E4. reflexivity. }
      cbn [host_display spec_host_serializer]. destruct (ipv4_display_edges a Ha) as (K1 & K2 & K3).
      split; [apply ipv4_display_spec; exact Ha|]. split; [exact K1|]. split; [discriminate|]. split; [exact K2 | exact K3].
    + cbn [xr_result host_display spec_host_serializer].
      split; [reflexivity|].
      split.
      { destruct (starts_with_cp 58 d) eqn:K; [|reflexivity]. exfalso.
        destruct (dom_char_facts 58 (forall_head _ d 58 Hd K)) as (_ & _ & K' & _). vm_compute in K'. discriminate K'. }
      split; [intros K; inversion K; contradiction|]. split; [exact Hne|].
      destruct (ends_with_byte 47 d) eqn:K; [|reflexivity]. exfalso.
      destruct (dom_char_facts 47 (forall_last _ d 47 Hd K)) as (_ & _ & K' & _). vm_compute in K'. discriminate K'.
Qed.
