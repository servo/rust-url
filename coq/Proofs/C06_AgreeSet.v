(* Proofs/C06_AgreeSet.v - parser agreement per setter, the host case: the host Url::set_host(Some x) stores is the one
   the parser's host state (context UrlParser) returns for the argument text standing at that position
   (Proofs/C06_Agree.v).  The other setters need a line or two each and are proved where they are stated
   (Properties/C06.v, section 15).  Then the non-vacuity examples. *)
From RU Require Import Base.Prelude Base.Utf8 Base.Utf8Facts Model.AsciiSet Gen.Tables Model.PercentEncoding
  Model.HostT Model.UrlRecord Model.Parser Model.Setters Model.WF
  Proofs.ListN Proofs.C14_Set Proofs.C14_Enc Proofs.C02_Enc Proofs.C02_Parts Proofs.C02_Opaque Proofs.C02_AuthParts
  Proofs.C03_WF Proofs.C06_List Proofs.C06_WFI Proofs.C06_Tail Proofs.C06_Steps Proofs.C06_Suffix Proofs.C06_Front
  Proofs.C06_FragQuery Proofs.C06_Port Proofs.C06_Cred Proofs.C06_Host Proofs.C06_Path Proofs.C06_Main
  Proofs.C06_Quirks Proofs.C06_Agree.

Section AgreeSet.
Variable dbg : bool.
Variable hp hpo : list N -> result host.
Variable hd : host -> list N.

(* the scheme type of a record (as the parser classifies it) *)
Definition stype (u : url) : scheme_type := scheme_type_of (nfirstn (scheme_end u) (ser u)).

Lemma uenc_userinfo_enc x : usv_list x -> userinfo_enc x = uenc x.
Proof. intros H. unfold userinfo_enc, uenc. apply pe_display_utf8. exact H. Qed.

(* host: scheme other than file, argument free of TAB/LF/CR, ':' '/' '?' '#' '[' ']' (and '\' for a
   special scheme) *)
Lemma set_host_some_special_nonempty u u' sch : wf_b u = true -> scheme u = Some sch ->
  set_host dbg hp hpo hd u (Some []) = Some (u', SOk) ->
  st_is_special (scheme_type_of sch) && negb (st_is_file (scheme_type_of sch)) = false.
Proof.
  intros W Hs H. unfold set_host in H. rewrite (cannot_be_a_base_eval u W) in H. cbn [bindo] in H.
  destruct (negb (byte_eqb (ser u) (scheme_end u + 1) 47)); [discriminate|].
  unfold u_scheme_type in H. rewrite Hs in H. cbn [bindo andb] in H.
  destruct (st_is_special (scheme_type_of sch) && negb (st_is_file (scheme_type_of sch))); [discriminate | reflexivity].
Qed.

Theorem agree_host u x u' : host_fns_ok hp hpo hd -> wfh u ->
  (has_authority_b u = false -> path_start u = scheme_end u + 1) ->
  st_is_file (stype u) = false -> forallb (hostc (st_is_special (stype u))) x = true ->
  set_host dbg hp hpo hd u (Some x) = Some (u', SOk) ->
  exists h, ((has_authority_b u = true -> hi_of_host h = HI_None -> port u = None) ->
             host_str u' = Some (if hi_some (hi_of_host h) then Some (hd h) else None) /\ hosti u' = hi_of_host h)
    /\ forall X, host_tail (st_is_special (stype u)) X -> parse_host hp hpo (stype u) (x ++ X) = POk (h, X).
Proof.
  intros HF [W HT] X2 Hnf Hx E.
  destruct (set_host_some_post dbg hp hpo hd HF u x u' W X2 E) as (sch & t & h & Hs & Ht & Hh & Hpost).
  assert (sch = nfirstn (scheme_end u) (ser u)) as Esch.
  { rewrite (scheme_eval u W) in Hs. inversion Hs. unfold piece. cbn [pidx]. rewrite N.sub_0_r, nskipn_0. reflexivity. }
  assert (t = x) as ->.
  { unfold set_host_arg_text in Ht.
    assert (forallb (fun c => negb (c =? 91)) x = true /\ forallb (fun c => negb (c =? 58)) x = true) as [H91 H58].
    { split; apply (forallb_impl (hostc (st_is_special (stype u)))); try exact Hx; intros c Hc; unfold hostc, host_stop in Hc;
        destruct (st_is_special (stype u)); cbn [negb andb] in Hc; lia. }
    assert ((match x with 91 :: _ => true | _ => false end) = false) as E91.
    { destruct x as [|c r]; [reflexivity|]. cbn [forallb] in H91. apply andb_true_iff in H91. destruct H91 as [H _].
      apply negb_true_iff in H. destruct c as [|pc]; [reflexivity|]. repeat (destruct pc as [pc|pc|]; try reflexivity); discriminate H. }
    rewrite E91 in Ht. cbn [andb] in Ht. unfold find_byte in Ht. rewrite (find_byte_aux_none 58 x 0 H58) in Ht.
    inversion Ht. reflexivity. }
  exists h. split.
  - intros X1. destruct (Hpost X1) as (_ & _ & _ & _ & _ & _ & _ & A & B). split; assumption.
  - intros X HX. rewrite (parse_host_raw hp hpo (stype u) x X Hnf Hx HX).
    unfold stype in *. rewrite <- Esch in *.
    assert (scheme_type_eqb (scheme_type_of sch) STSpecialNotFile && match x with [] => true | _ => false end = false) as Ee.
    { destruct x as [|c r]; [|apply andb_false_r]. rewrite andb_true_r.
      pose proof (set_host_some_special_nonempty u u' sch W Hs E) as Hn.
      destruct (scheme_type_of sch); cbn in *; congruence. }
    rewrite Ee. destruct (st_is_special (scheme_type_of sch)); rewrite Hh; reflexivity.
Qed.

End AgreeSet.

(* non-vacuity, and the composition on concrete inputs *)
(* record "a://h:80/p?q#f" (qx_u of C06_Quirks.v), host functions qx_hp / qx_hd.  Each argument meets the
   hypotheses of its theorem, the call succeeds, and Parser::parse_url on the old serialization with the raw
   argument text spliced in returns THE SAME RECORD as the setter (all ten fields) *)
From Coq Require Import String.
From RU Require Import Proofs.C02_Reach.
Definition same_as_parse (r : option url) (spliced : string) : bool :=
  match r with
  | Some u' => match parse_url true qx_hp qx_hp qx_hd None None (B spliced) with
               | POk u'' => url_eqb u'' u'
               | _ => false
               end
  | None => false
  end.
Definition ok_of (r : option (url * status)) : option url :=
  match r with Some (u', SOk) => Some u' | _ => None end.

Example agree_inhabited :
  (* arguments: "u s", "p:w", "xy", 81, "/a b/../c", "k v", "f g" *)
  forallb (fun c => plainc false c && negb (c =? 58)) (B "u s") = true
  /\ forallb (plainc false) (B "p:w") = true
  /\ forallb (hostc false) (B "xy") = true /\ st_is_file (stype qx_u) = false /\ st_is_special (stype qx_u) = false
  /\ forallb no_qh (B "/a b/../c") = true /\ forallb no_h (B "k v") = true
  /\ username true qx_u = Some [] /\ has_authority_b qx_u = true
  /\ same_as_parse (ok_of (set_username true qx_u (B "u s"))) "a://u s@h:80/p?q#f" = true
  /\ same_as_parse (ok_of (set_password true qx_u (Some (B "p:w")))) "a://:p:w@h:80/p?q#f" = true
  /\ same_as_parse (ok_of (set_host true qx_hp qx_hp qx_hd qx_u (Some (B "xy")))) "a://xy:80/p?q#f" = true
  /\ same_as_parse (ok_of (set_port true qx_u (Some 81))) "a://h:81/p?q#f" = true
  /\ same_as_parse (set_path true qx_u (B "/a b/../c")) "a://h:80/a b/../c?q#f" = true
  /\ same_as_parse (set_query true qx_u (Some (B "k v"))) "a://h:80/p?k v#f" = true
  /\ same_as_parse (set_fragment true qx_u (Some (B "f g"))) "a://h:80/p?q#f g" = true
  /\ (exists u', set_username true qx_u (B "u s") = Some (u', SOk) /\ ser u' = B "a://u%20s@h:80/p?q#f")
  /\ (exists u', set_path true qx_u (B "/a b/../c") = Some u' /\ ser u' = B "a://h:80/c?q#f").
Proof. vm_compute. repeat split; eexists; split; reflexivity. Qed.
