(* Proofs/C20_Path.v - splitting at separators, the std::path model, and the path written by
   from_file_path / read back by to_file_path. *)
From RU Require Import Base.Prelude
  Model.UrlRecord Model.FilePath
  Proofs.ListN.

(* "/c1/c2/.../cn" *)
Definition join_slash (cs : list (list N)) : list N := flat_map (fun c => 47 :: c) cs.

Lemma join_slash_cons c cs : join_slash (c :: cs) = 47 :: c ++ join_slash cs.
Proof. reflexivity. Qed.

Lemma join_slash_app a b : join_slash (a ++ b) = join_slash a ++ join_slash b.
Proof. unfold join_slash. apply flat_map_app. Qed.

Lemma join_slash_snoc a c : join_slash (a ++ [c]) = join_slash a ++ 47 :: c.
Proof. rewrite join_slash_app. cbn [join_slash flat_map]. rewrite app_nil_r. reflexivity. Qed.

Lemma split_aux_sep sep acc l : split_on_aux sep acc (sep :: l) = rev acc :: split_on_aux sep [] l.
Proof. cbn [split_on_aux]. rewrite N.eqb_refl. reflexivity. Qed.

Lemma split_aux_nil sep acc : split_on_aux sep acc [] = [rev acc].
Proof. reflexivity. Qed.

Lemma split_aux_nosep sep c : forall acc l, ~ In sep c ->
  split_on_aux sep acc (c ++ l) = split_on_aux sep (rev c ++ acc) l.
Proof.
  induction c as [|x c IH]; intros acc l Hn.
  - reflexivity.
  - cbn [app split_on_aux]. destruct (x =? sep) eqn:E.
    + exfalso. apply Hn. left. lia.
    + rewrite IH by (intros Hi; apply Hn; right; exact Hi).
      cbn [rev]. rewrite <- app_assoc. reflexivity.
Qed.

(* the pieces after a possible trailing separator *)
Definition tail_pieces (t : list N) : list (list N) := match t with [] => [] | _ => [[]] end.

Lemma split_join sep ks : forall acc t, (t = [] \/ t = [sep]) ->
  Forall (fun k => ~ In sep k) ks ->
  split_on_aux sep acc (flat_map (fun c => sep :: c) ks ++ t) = rev acc :: ks ++ tail_pieces t.
Proof.
  induction ks as [|k ks IH]; intros acc t Ht Hks.
  - cbn [flat_map app]. destruct Ht as [-> | ->].
    + reflexivity.
    + rewrite split_aux_sep. reflexivity.
  - inversion Hks as [|? ? Hk Hks']; subst.
    cbn [flat_map]. rewrite <- !app_comm_cons. rewrite split_aux_sep. f_equal.
    rewrite <- app_assoc. rewrite split_aux_nosep by exact Hk.
    rewrite IH by assumption. rewrite app_nil_r, rev_involutive. reflexivity.
Qed.

Lemma split_join_slash ks t : (t = [] \/ t = [47]) -> Forall (fun k => ~ In 47 k) ks ->
  split_on 47 (join_slash ks ++ t) = [] :: ks ++ tail_pieces t.
Proof. intros Ht Hks. unfold split_on, join_slash. rewrite split_join by assumption. reflexivity. Qed.

(* what path_segments sees: the path without its first '/' *)
Lemma split_join_slash_tl k ks : Forall (fun k => ~ In 47 k) (k :: ks) ->
  split_on 47 (k ++ join_slash ks) = k :: ks.
Proof.
  intros H. inversion H as [|? ? Hk Hks]; subst. unfold split_on.
  rewrite split_aux_nosep by exact Hk. rewrite app_nil_r.
  rewrite <- (app_nil_r (join_slash ks)). unfold join_slash. rewrite split_join by (auto).
  rewrite rev_involutive. cbn [tail_pieces]. rewrite app_nil_r. reflexivity.
Qed.

(* pieces contain no separator, and only elements of the input *)
Lemma split_aux_pieces (P : N -> Prop) sep : forall l acc,
  Forall P acc -> Forall P l -> Forall (Forall P) (split_on_aux sep acc l).
Proof.
  induction l as [|x l IH]; intros acc Ha Hl.
  - cbn [split_on_aux]. constructor; [|constructor]. apply Forall_rev. exact Ha.
  - inversion Hl as [|? ? Hx Hl']; subst. cbn [split_on_aux]. destruct (x =? sep).
    + constructor; [apply Forall_rev; exact Ha | apply IH; [constructor | exact Hl']].
    + apply IH; [constructor; assumption | exact Hl'].
Qed.

Lemma split_aux_nosep_pieces sep : forall l acc,
  ~ In sep acc -> Forall (fun k => ~ In sep k) (split_on_aux sep acc l).
Proof.
  induction l as [|x l IH]; intros acc Ha.
  - cbn [split_on_aux]. constructor; [|constructor]. intros Hi. apply Ha. apply in_rev. exact Hi.
  - cbn [split_on_aux]. destruct (x =? sep) eqn:E.
    + constructor; [intros Hi; apply Ha; apply in_rev; exact Hi | apply IH; intros []].
    + apply IH. intros [Hx | Hi]; [lia | exact (Ha Hi)].
Qed.

Lemma split_on_bytes p : bytes p -> Forall bytes (split_on 47 p).
Proof. intros H. unfold split_on. apply (split_aux_pieces is_byte); [constructor | exact H]. Qed.

Lemma split_on_nosep p : Forall (fun k => ~ In 47 k) (split_on 47 p).
Proof. unfold split_on. apply split_aux_nosep_pieces. intros []. Qed.

(* the kept pieces of a path: those between '/' other than the empty piece and the single dot *)
Definition kept (p : list N) : list (list N) := filter keep_piece (split_on 47 p).

Lemma Forall_filter {A} (P : A -> Prop) f (l : list A) : Forall P l -> Forall P (filter f l).
Proof.
  induction l as [|x l IH]; intros H; [constructor|].
  inversion H; subst. cbn [filter]. destruct (f x); [constructor; auto | auto].
Qed.

Lemma filter_all {A} f (l : list A) : Forall (fun x => f x = true) l -> filter f l = l.
Proof.
  induction l as [|x l IH]; intros H; [reflexivity|].
  inversion H as [|? ? Hx Hl]; subst. cbn [filter]. rewrite Hx. f_equal. exact (IH Hl).
Qed.

Lemma filter_keeps {A} f (l : list A) : Forall (fun x => f x = true) (filter f l).
Proof.
  induction l as [|x l IH]; [constructor|]. cbn [filter]. destruct (f x) eqn:E; [constructor; assumption | exact IH].
Qed.

Lemma kept_bytes p : bytes p -> Forall bytes (kept p).
Proof. intros H. apply Forall_filter. apply split_on_bytes. exact H. Qed.

Lemma kept_nosep p : Forall (fun k => ~ In 47 k) (kept p).
Proof. apply Forall_filter. apply split_on_nosep. Qed.

Lemma kept_keep p : Forall (fun k => keep_piece k = true) (kept p).
Proof. apply filter_keeps. Qed.

Lemma components_abs p : path_is_absolute p = true ->
  path_components p = CRootDir :: map component_of_piece (kept p).
Proof. intros H. unfold path_components. rewrite H. reflexivity. Qed.

(* a match on the literal 46 whose scrutinee differs from 46 takes the default branch *)
Lemma N_match46 {A} (a : N) (X Y : A) : a <> 46 -> (match a with 46 => X | _ => Y end) = Y.
Proof.
  intros H. destruct a as [|p]; [reflexivity|].
  do 6 (destruct p as [p|p|]; try reflexivity). exfalso. apply H. reflexivity.
Qed.

Ltac m46 a := let H := fresh "Hne" in
  destruct (N.eq_dec a 46) as [->|H]; [|rewrite (N_match46 a) by exact H].

(* matches whose branches coincide (left over by the compilation of overlapping patterns) *)
Ltac dmatch := repeat match goal with
  | |- context [match ?x with N0 => _ | Npos _ => _ end] => is_var x; destruct x
  | |- context [match ?x with xI _ => _ | xO _ => _ | xH => _ end] => is_var x; destruct x
  end.

Lemma piece_is_dot_spec x : piece_is_dot x = true <-> x = [46].
Proof.
  split; [|intros ->; reflexivity].
  destruct x as [|a [|b r]]; cbn [piece_is_dot]; try discriminate.
  - m46 a; [reflexivity | discriminate].
  - m46 a; discriminate.
Qed.

Lemma piece_is_dotdot_spec x : piece_is_dotdot x = true <-> x = [46; 46].
Proof.
  split; [|intros ->; reflexivity].
  destruct x as [|a [|b [|c r]]]; cbn [piece_is_dotdot]; try discriminate.
  - m46 a; discriminate.
  - m46 a; [|discriminate]. m46 b; [reflexivity | discriminate].
  - m46 a; [|discriminate]. m46 b; discriminate.
Qed.

Lemma component_bytes_of_piece x : component_bytes (component_of_piece x) = x.
Proof.
  unfold component_of_piece. destruct (piece_is_dotdot x) eqn:E; [|reflexivity].
  apply piece_is_dotdot_spec in E. subst. reflexivity.
Qed.

Lemma keep_piece_nonempty k : keep_piece k = true -> k <> [].
Proof. intros H ->. discriminate H. Qed.

Lemma filter_tail_pieces t : filter keep_piece (tail_pieces t) = [].
Proof. destruct t; reflexivity. Qed.

Lemma components_join_slash ks t : (t = [] \/ t = [47]) -> ks <> [] ->
  Forall (fun k => ~ In 47 k) ks -> Forall (fun k => keep_piece k = true) ks ->
  path_components (join_slash ks ++ t) = CRootDir :: map component_of_piece ks.
Proof.
  intros Ht Hne Hns Hk.
  assert (Habs : path_is_absolute (join_slash ks ++ t) = true).
  { destruct ks as [|k ks]; [congruence|]. reflexivity. }
  rewrite components_abs by exact Habs. unfold kept.
  rewrite split_join_slash by assumption.
  cbn [filter keep_piece piece_is_empty negb andb]. rewrite filter_app, filter_tail_pieces, app_nil_r.
  rewrite filter_all by exact Hk. reflexivity.
Qed.

Lemma components_root t : (t = [] \/ t = [47]) -> path_components ([47] ++ t) = [CRootDir].
Proof. intros [-> | ->]; reflexivity. Qed.

(* Path::join with a single normal component *)
Lemma split_aux_snoc sep f : ~ In sep f -> forall p acc,
  split_on_aux sep acc (p ++ sep :: f) = split_on_aux sep acc p ++ [f].
Proof.
  intros Hf. induction p as [|x p IH]; intros acc.
  - cbn [app]. rewrite split_aux_sep, split_aux_nil.
    rewrite <- (app_nil_r f) at 1. rewrite split_aux_nosep by exact Hf.
    rewrite split_aux_nil, app_nil_r, rev_involutive. reflexivity.
  - cbn [app split_on_aux]. destruct (x =? sep); [cbn [app]; f_equal; apply IH | apply IH].
Qed.

Lemma kept_snoc p f : ~ In 47 f -> keep_piece f = true -> kept (p ++ 47 :: f) = kept p ++ [f].
Proof.
  intros Hn Hk. unfold kept, split_on. rewrite split_aux_snoc by exact Hn.
  rewrite filter_app. cbn [filter]. rewrite Hk. reflexivity.
Qed.

Lemma kept_trailing_slash p : kept (p ++ [47]) = kept p.
Proof.
  unfold kept, split_on. rewrite split_aux_snoc by (intros []).
  rewrite filter_app. cbn [filter keep_piece piece_is_empty negb andb]. apply app_nil_r.
Qed.

Lemma ends_with_byte_inv b p : ends_with_byte b p = true -> exists p0, p = p0 ++ [b].
Proof.
  unfold ends_with_byte. destruct (rev p) as [|x r] eqn:E; [discriminate|]. intros H.
  exists (rev r). rewrite <- (rev_involutive p), E. cbn [rev]. f_equal. f_equal. lia.
Qed.

Lemma abs_app p q : path_is_absolute p = true -> path_is_absolute (p ++ q) = true.
Proof. destruct p as [|x p]; [discriminate|]. intros H. exact H. Qed.

Theorem components_path_join p f : path_is_absolute p = true ->
  f <> [] -> ~ In 47 f -> keep_piece f = true -> piece_is_dotdot f = false ->
  path_components (path_join p f) = path_components p ++ [CNormal f].
Proof.
  intros Ha Hne Hn Hk Hdd. unfold path_join.
  assert (Hfa : path_is_absolute f = false).
  { destruct f as [|x f']; [reflexivity|]. destruct (path_is_absolute (x :: f')) eqn:E; [|reflexivity].
    exfalso. apply Hn. left.
    destruct x as [|px]; [discriminate E|]. do 6 (destruct px as [px|px|]; try discriminate E). reflexivity. }
  rewrite Hfa.
  assert (Hcop : component_of_piece f = CNormal f) by (unfold component_of_piece; rewrite Hdd; reflexivity).
  rewrite (components_abs p Ha).
  destruct (negb (piece_is_empty p) && negb (ends_with_byte 47 p)) eqn:E.
  - rewrite components_abs by (apply abs_app; exact Ha).
    cbn [app]. rewrite kept_snoc by assumption. rewrite map_app. cbn [map app]. rewrite Hcop. reflexivity.
  - assert (He : ends_with_byte 47 p = true).
    { destruct p as [|x p']; [discriminate Ha|]. cbn [piece_is_empty negb andb] in E.
      destruct (ends_with_byte 47 (x :: p')); [reflexivity | discriminate E]. }
    destruct (ends_with_byte_inv 47 p He) as [p0 Hp0]. subst p.
    rewrite components_abs by (apply abs_app; exact Ha).
    rewrite <- app_assoc. cbn [app]. rewrite kept_snoc by assumption. rewrite kept_trailing_slash.
    rewrite map_app. cbn [map app]. rewrite Hcop. reflexivity.
Qed.
