(* Proofs/C13_RtB.v - the round trip of Proofs/C13_Rt.v replayed on the decoder WITH its 32-bit checks
   (b_dec_loop): if along the encoder's walk every delta satisfies  di + delta <= u32::MAX  (di = the
   decoder's index in front of that delta; w_inner / w_outer compute this), the checked decoder reads
   the encoder's output back without any check firing. *)
From RU Require Import Base.Prelude Base.U32_c13 Spec.Rfc3492 Proofs.C13_Enc
  Proofs.C13_Rt Proofs.C13_DecB.

(* the encoder's walk with the decoder's index: None as soon as some  di + delta  exceeds u32::MAX.  k_inner / k_outer
   of Spec/Rfc3492.v (behind known_c13) are the same recursion raising a flag instead; C13_DecEnc.link_outer relates them. *)
Fixpoint w_inner (input : list N) (n : N) (delta h di pos : N) : option (N * N * N) :=
  match input with
  | [] => Some (delta, h, di)
  | c :: r =>
      let delta := if c <? n then delta + 1 else delta in
      if c =? n then
        if di + delta <=? U32_MAX then w_inner r n 0 (h + 1) (pos + 1) (pos + 1) else None
      else w_inner r n delta h di (if c <? n then pos + 1 else pos)
  end.

Fixpoint w_outer (fuel : nat) (input : list N) (il : N) (n delta h di : N) : bool :=
  if h <? il then
    match fuel with
    | O => true
    | S f =>
        let m := match s_min_ge n input with Some m => m | None => n end in
        match w_inner input m (delta + (m - n) * (h + 1)) h di 0 with
        | Some (delta, h, di) => w_outer f input il (m + 1) (delta + 1) h di
        | None => false
        end
    end
  else true.

Lemma w_inner_cons c r n delta h di pos :
  w_inner (c :: r) n delta h di pos =
  if c =? n then
    if di + (if c <? n then delta + 1 else delta) <=? U32_MAX then w_inner r n 0 (h + 1) (pos + 1) (pos + 1) else None
  else w_inner r n (if c <? n then delta + 1 else delta) h di (if c <? n then pos + 1 else pos).
Proof. reflexivity. Qed.

Lemma w_outer_S f input il n delta h di :
  w_outer (S f) input il n delta h di =
  if h <? il then
    match w_inner input (match s_min_ge n input with Some m => m | None => n end)
            (delta + ((match s_min_ge n input with Some m => m | None => n end) - n) * (h + 1)) h di 0 with
    | Some (delta, h, di) => w_outer f input il ((match s_min_ge n input with Some m => m | None => n end) + 1) (delta + 1) h di
    | None => false
    end
  else true.
Proof. reflexivity. Qed.

Lemma len_filter_le p (l : list N) : len (filter p l) <= len l.
Proof. rewrite <- cnt_filter. apply cnt_le. Qed.

Lemma usvb_le m : is_usvb m = true -> m <= 1114111.
Proof. unfold is_usvb. lia. Qed.

Lemma coupled_len m b pre suf d h nd id out : coupled m b pre suf d h nd id out -> h <= len pre + len suf.
Proof.
  intros (Hout & Hh & _). rewrite Hh, Hout, len_app.
  pose proof (len_filter_le (le_m m) pre). pose proof (len_filter_le (lt_m m) suf). lia.
Qed.

Lemma len_filter_le_snoc m pre c :
  len (filter (le_m m) (pre ++ [c])) = len (filter (le_m m) pre) + (if c <=? m then 1 else 0).
Proof. rewrite filter_le_snoc, len_app. destruct (c <=? m); reflexivity. Qed.

(* the walk's delta and count are the encoder's *)
Lemma w_inner_proj l : forall n b d bias h di pos wd wh wdi sd sb sh so,
  w_inner l n d h di pos = Some (wd, wh, wdi) -> s_enc_inner l n b d bias h = (sd, sb, sh, so) ->
  wd = sd /\ wh = sh.
Proof.
  induction l as [|c r IH]; intros n b d bias h di pos wd wh wdi sd sb sh so Hw Hs.
  - cbn [w_inner] in Hw. cbn [s_enc_inner] in Hs. inversion Hw. inversion Hs. subst. split; reflexivity.
  - rewrite w_inner_cons in Hw. rewrite s_enc_inner_cons in Hs. cbv zeta in Hs. destruct (c =? n).
    + destruct (di + (if c <? n then d + 1 else d) <=? U32_MAX); [|discriminate].
      destruct (s_enc_inner r n b 0 (s_adapt (if c <? n then d + 1 else d) (h + 1) (h =? b)) (h + 1))
        as [[[a1 b1] c1] o1] eqn:E.
      inversion Hs. subst. eapply IH; [exact Hw|exact E].
    + eapply IH; [exact Hw|exact Hs].
Qed.

Section RTB.
  Variable dig : N -> option N.
  Hypothesis Hdig : forall d, d < 36 -> dig (s_digit_char d) = Some d.

  Lemma b_inner_rt : forall suf pre m b d bias h nd id out rest wd wh wid,
    is_usvb m = true -> coupled m b pre suf d h nd id out ->
    bias <= 215 -> len pre + len suf <= U32_MAX ->
    w_inner suf m d h id (len (filter (le_m m) pre)) = Some (wd, wh, wid) ->
    match s_enc_inner suf m b d bias h with
    | (d', bias', h', o) =>
        exists nd' out',
          b_dec_loop dig (o ++ rest) false id 1 s_base id nd bias out
            = b_dec_loop dig rest false wid 1 s_base wid nd' bias' out'
          /\ coupled m b (pre ++ suf) [] d' h' nd' wid out' /\ bias' <= 215
    end.
  Proof.
    induction suf as [|c suf IH]; intros pre m b d bias h nd id out rest wd wh wid Hm C Hbias Hlen Hw.
    - cbn [w_inner] in Hw. inversion Hw. subst wd wh wid. exists nd, out. rewrite app_nil_r.
      split; [reflexivity|]. split; [exact C|exact Hbias].
    - rewrite s_enc_inner_cons. cbv zeta. rewrite w_inner_cons in Hw. rewrite len_cons in Hlen.
      replace (pre ++ c :: suf) with ((pre ++ [c]) ++ suf) by (rewrite <- app_assoc; reflexivity).
      assert (Hlen' : len (pre ++ [c]) + len suf <= U32_MAX) by (rewrite len_app; change (len [c]) with 1; lia).
      specialize (IH (pre ++ [c]) m b). rewrite len_filter_le_snoc in IH.
      destruct (N.lt_trichotomy c m) as [Hc|[->|Hc]].
      + replace (c =? m) with false in * by lia. replace (c <? m) with true in * by lia.
        replace (c <=? m) with true in IH by lia.
        exact (IH _ bias _ _ _ _ rest _ _ _ Hm (coupled_lt _ _ _ _ _ _ _ _ _ _ Hc C) Hbias Hlen' Hw).
      + rewrite N.eqb_refl in *. replace (m <? m) with false in * by lia. replace (m <=? m) with true in IH by lia.
        destruct (id + d <=? U32_MAX) eqn:Efit; [|discriminate].
        destruct (coupled_eq _ _ _ _ _ _ _ _ _ C) as (_ & Hn & Hpos & C').
        pose proof (coupled_len _ _ _ _ _ _ _ _ _ C') as Hh1.
        specialize (IH 0 (s_adapt d (h + 1) (h =? b)) _ _ _ _ rest _ _ _ Hm C' ltac:(apply s_adapt_le; lia) Hlen' Hw).
        destruct (s_enc_inner suf m b 0 (s_adapt d (h + 1) (h =? b)) (h + 1)) as [[[d' bias'] h'] o'].
        destruct IH as (nd' & out' & E & C''). exists nd', out'. split; [|exact C''].
        destruct C as (_ & Hh & _ & _ & Hfl & _).
        rewrite <- app_assoc, (b_vli_read dig Hdig) by (exact Hbias || lia).
        unfold b_dec_break. cbv zeta. rewrite <- Hh, Hn, Hpos, Hm, Hfl.
        pose proof (usvb_le m Hm).
        replace ((h + 1 <=? U32_MAX) && (m <=? U32_MAX)) with true by (unfold U32_MAX in *; lia).
        replace (id + d - id) with d by lia. exact E.
      + replace (c =? m) with false in * by lia. replace (c <? m) with false in * by lia.
        replace (c <=? m) with false in IH by lia. rewrite N.add_0_r in IH.
        exact (IH _ bias _ _ _ _ rest _ _ _ Hm (coupled_gt _ _ _ _ _ _ _ _ _ _ Hc C) Hbias Hlen' Hw).
  Qed.

  Lemma b_outer_coupled : forall fuel input b n d bias h nd id out,
    Forall (fun c => is_usvb c = true) input -> coupled n b [] input d h nd id out ->
    len input - h < N.of_nat fuel -> bias <= 215 -> len input <= U32_MAX ->
    w_outer fuel input (len input) n d h id = true ->
    b_dec_loop dig (s_enc_outer fuel input (len input) b n d bias h) false id 1 s_base id nd bias out = Some input.
  Proof.
    induction fuel as [|f IH]; intros input b n d bias h nd id out Hu C Hf Hbias Hlen Hw; [cbn in Hf; lia|].
    rewrite s_enc_outer_S. rewrite w_outer_S in Hw. pose proof (coupled_cnt _ _ _ _ _ _ _ _ C) as Hcnt.
    destruct (h <? len input) eqn:E.
    - destruct (min_exists input n h Hcnt ltac:(lia)) as [m Em]. rewrite Em in *. cbv zeta.
      apply s_min_ge_some in Em. destruct Em as [Hin [Hle Hmin]].
      assert (Hm : is_usvb m = true) by (rewrite Forall_forall in Hu; exact (Hu m Hin)).
      destruct (w_inner input m (d + (m - n) * (h + 1)) h id 0) as [[[wd wh] wid]|] eqn:Ew; [|discriminate].
      destruct (s_enc_inner input m b (d + (m - n) * (h + 1)) bias h) as [[[d' bias'] h'] o'] eqn:Es.
      destruct (w_inner_proj _ _ _ _ _ _ _ _ _ _ _ _ _ _ _ Ew Es) as [-> ->].
      pose proof (b_inner_rt input [] m b (d + (m - n) * (h + 1)) bias h nd id out
                    (s_enc_outer f input (len input) b (m + 1) (d' + 1) bias' h') d' h' wid Hm
                    (coupled_min _ _ _ _ _ _ _ _ _ Hle Hmin C) Hbias ltac:(rewrite len_nil; lia) Ew) as HI.
      rewrite Es in HI. destruct HI as (nd' & out' & E1 & C' & Hbias'). rewrite E1.
      apply s_inner_facts in Es. destruct Es as [Hh' _]. pose proof (cnt_eq_in input m Hin) as Hc.
      apply IH; [exact Hu|exact (coupled_next _ _ _ _ _ _ _ _ C')| |exact Hbias'|exact Hlen|exact Hw].
      rewrite Nat2N.inj_succ in Hf. lia.
    - destruct C as (Hout & Hh & _). cbn [filter app] in Hout.
      assert (Ho : out = input).
      { rewrite Hout. apply filter_len_all. rewrite <- Hout, <- Hh. pose proof (cnt_le (fun c => c <? n) input). lia. }
      cbn [b_dec_loop]. rewrite Ho. reflexivity.
  Qed.

  (* b_outer_coupled with its hypothesis `coupled n b [] input ...` written out conjunct by conjunct *)
  Lemma b_outer_rt : forall fuel input b n d bias h nd id out,
    Forall (fun c => is_usvb c = true) input ->
    out = filter (lt_m n) input -> h = len out -> nd <= n -> b <= h -> (id =? 0) = (h =? b) ->
    nd * (h + 1) + id + d = n * (h + 1) -> len input - h < N.of_nat fuel ->
    bias <= 215 -> len input <= U32_MAX ->
    w_outer fuel input (len input) n d h id = true ->
    b_dec_loop dig (s_enc_outer fuel input (len input) b n d bias h) false id 1 s_base id nd bias out = Some input.
  Proof.
    intros fuel input b n d bias h nd id out Hu Hout Hh Hnd Hb Hfl Heq Hf Hbias Hlen Hw.
    apply b_outer_coupled; try assumption.
    unfold coupled. cbn [filter app]. rewrite len_nil, N.add_0_r. repeat split; assumption.
  Qed.
End RTB.
