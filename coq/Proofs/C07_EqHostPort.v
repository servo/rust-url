(* Proofs/C07_EqHostPort.v - the host setter on values WITH a port part (the scan of the host state stops at a ':'
   outside brackets); with Proofs/C07_EqHostNoPort.v this is the host setter on EVERY value (host_step of Proofs/C07_EqNine.v):
   the Standard (Proofs/C07_SpecHostPort.v spec_host_colon): empty buffer or host-parser failure = nothing changes;
   otherwise the host is set and the port state runs on the text after the ':' with a state override - leading
   digits = the port (null for the default port), no digit or a number above 65535 = failure with the host already
   changed and the port kept.
   url::quirks::set_host: Parser::parse_host leaves the ':' at the head of the remaining input; the text behind it
   goes to parse_port in the setter context (Proofs/C07_EqPort.v parse_port_setter / port_arg); an error or an empty
   rest = "no new port information" (set_host_internal .. None), a success = set_host_internal .. (Some p), which
   is the host replaced and then the port replaced (Proofs/C06_Quirks.v set_host_internal_port_eval).
   Outside classes 2, 3, 4 of Known_C07 (class 2: a non-special URL and a value led by ':', F-C07-6) the two agree on
   every corr-related pair (host_colon_step). *)
From Coq Require Import Bool.
From RU Require Import Base.Prelude Base.Utf8 Base.Utf8Facts Model.AsciiSet Gen.Tables Model.PercentEncoding
  Model.HostT Model.UrlRecord Model.Parser Model.Setters Model.WF Model.KnownC01 Model.KnownC07 Spec.Whatwg Spec.WhatwgFuel
  Proofs.ListN Proofs.C03_WF Proofs.C06_List Proofs.C06_WFI Proofs.C06_Tail Proofs.C06_Suffix Proofs.C06_Front
  Proofs.C06_Steps Proofs.C06_FragQuery Proofs.C06_Port Proofs.C06_Host Proofs.C06_Quirks Proofs.C08_Input
  Proofs.C02_Enc Proofs.C01_Tables Proofs.C01_EqRun Proofs.C01_EqEnc Proofs.C01_EqApi Proofs.C01_EqAuthSpec
  Proofs.C07_Defs Proofs.C07_Histories Proofs.C07_Setters Proofs.C07_Corr Proofs.C07_SpecRun Proofs.C07_EqCred Proofs.C07_EqPort
  Proofs.C07_SpecProto Proofs.C07_EqProto Proofs.C07_EqSix Proofs.C07_SpecHost Proofs.C07_EqHostLayout Proofs.C07_EqHostname
  Proofs.C07_EqSeven Proofs.C07_EqHostNoPort Proofs.C07_SpecHostPort.

(* the scan: what is left behind the ':' *)
Lemma host_scan_rest_colon sp l : forall br acc,
  snd (hscan sp br (rev acc) (ntnl l)) = true ->
  exists rem', inp_split_prefix_char 58 (snd (host_scan sp br acc l)) = Some rem'
               /\ ntnl rem' = hrest sp br (ntnl l).
Proof.
  induction l as [|c r IH]; intros br acc H; [cbn in H; discriminate H|]. cbn [host_scan]. destruct (is_tnl c) eqn:Et.
  - rewrite ntnl_cons_tnl in H |- * by exact Et. apply IH. exact H.
  - rewrite ntnl_cons in H |- * by exact Et. cbn [hscan hrest] in H |- *.
    destruct ((c =? 58) && negb br) eqn:Ecol; cbn [orb].
    + cbn [snd]. exists r. split; [|reflexivity].
      unfold inp_split_prefix_char, inp_next. cbn [drop_while]. rewrite Et.
      apply andb_true_iff in Ecol. rewrite (proj1 Ecol). reflexivity.
    + assert (((c =? 92) && sp) || (c =? 47) || (c =? 63) || (c =? 35) = h_end sp c) as E
        by (unfold h_end; destruct (c =? 92), sp, (c =? 47), (c =? 63), (c =? 35); reflexivity).
      rewrite E. destruct (h_end sp c) eqn:Eh; [discriminate H|].
      unfold br_next in H |- *. destruct (c =? 91); [apply IH; exact H|].
      destruct (c =? 93); apply IH; exact H.
Qed.

(* an empty buffer at the ':' = the value is led by ':' *)
Lemma hscan_colon_empty sp t : snd (hscan sp false [] t) = true -> fst (hscan sp false [] t) = [] ->
  starts_with_byte 58 t = true.
Proof.
  destruct t as [|c r]; [cbn; discriminate|]. cbn [hscan starts_with_byte negb]. rewrite andb_true_r.
  destruct (c =? 58); [reflexivity|]. destruct (h_end sp c); [cbn; discriminate|]. intros _ H2. exfalso.
  assert (forall t br buf x, fst (hscan sp br (x :: buf) t) <> []) as NE.
  { induction t as [|d t' IHt]; intros br0 buf x; cbn [hscan fst]; [discriminate|].
    destruct ((d =? 58) && negb br0); [discriminate|]. destruct (h_end sp d); [discriminate|].
    cbn [app]. apply IHt. }
  cbn [app] in H2. exact (NE r _ [] c H2).
Qed.

(* the Standard's port state on the text behind the ':', as port_arg *)
Lemma port_outcome_arg su x : notnl x <> [] ->
  outcome_url (port_outcome su (take_digits (notnl x))) su
  = match port_arg (default_port (su_scheme su)) x with Some p => Whatwg.set_port su p | None => su end.
Proof.
  intros Hne. unfold port_arg, port_outcome.
  destruct (take_digits (notnl x)) as [|d ds] eqn:Eds.
  - cbn [outcome_url]. destruct (notnl x); [contradiction | reflexivity].
  - destruct (65535 <? decimal_value (d :: ds)); cbn [outcome_url]; [reflexivity|].
    unfold port_is_default. rewrite <- default_ports_are_the_standards.
    destruct (default_port (su_scheme su)) as [dp|]; cbn [opt_eqb]; [|reflexivity].
    rewrite N.eqb_sym. reflexivity.
Qed.

Section HostColon.
Variable dbg : bool.
Variable hp ho : list N -> result host.
Variable hd : host -> list N.
Variable shp : bool -> list N -> option spec_host.
Variable shs : spec_host -> list N.

Notation corr := (corr dbg shs).

(* the port of a related pair with a host is replaced on both sides (with_port itself, not set_port_internal) *)
Lemma corr_with_port u su p : corr u su -> has_host u = true ->
  match p with Some x => x <= 65535 | None => True end ->
  corr (with_port u p) (Whatwg.set_port su p).
Proof.
  intros C Hh Hp. pose proof (co_wf _ _ _ _ C) as W. pose proof (co_ht _ _ _ _ C) as HT.
  destruct (with_port_ok dbg u p W HT Hh Hp) as (W' & HT' & (I1 & I2 & I3 & I4) & P' & SB).
  apply (corr_cred dbg shs u su (with_port u p) _ C Hh W' HT');
    cbn [Whatwg.set_port su_scheme su_username su_password su_host su_port su_path su_query su_fragment];
    try assumption; try reflexivity.
  - exact (with_port_tight u p W HT Hh (corr_tight dbg shs u su C Hh)).
  - rewrite I2. exact (co_user _ _ _ _ C).
  - rewrite I3. exact (co_pass _ _ _ _ C).
  - exact (co_uclean _ _ _ _ C).
Qed.

(* host and port of a related pair are replaced on both sides: a host that is not the empty host *)
Lemma corr_set_host_port u su h sh np : corr u su -> has_opaque_path su = false ->
  hd h = shs sh -> host_disp_ok hd h -> (h = HDomain [] <-> sh = SEmpty) -> h <> HDomain [] ->
  (has_host u = false -> starts_with s_ss (serialize_path su) = false) ->
  match np with Some x => x <= 65535 | None => True end ->
  exists u', set_host_internal dbg hd u h (Some np) = Some u'
             /\ corr u' (Whatwg.set_port (Whatwg.set_host su (Some sh)) np).
Proof.
  intros C Hop Etxt Hdo Hem Hne Hk3 Hnp. pose proof (co_wf _ _ _ _ C) as W.
  destruct (corr_set_host dbg hd shp shs u su h sh C Hop Etxt Hdo Hem) as (u1 & E1 & C1); [|exact Hk3|].
  { intros X. exfalso. exact (Hne X). }
  assert (byte_eqb (ser u) (scheme_end u + 1) 47 = true) as Hsl.
  { pose proof (co_opaque _ _ _ _ C) as Eo. rewrite Hop in Eo. unfold is_opaque_b in Eo.
    apply negb_false_iff in Eo. exact Eo. }
  assert (has_authority_b u = false -> path_start u = scheme_end u + 1) as Hx2.
  { intros Ha. pose proof (wf_noauth_facts u W Ha) as F. destruct (nf_ps F) as [E|(E & _)]; [exact E|exfalso].
    pose proof (co_marker _ _ _ _ C) as Em. rewrite Ha in Em. cbn [negb andb] in Em.
    replace (path_start u =? scheme_end u + 3) with true in Em by lia.
    assert (has_host u = false) as Hh by (unfold has_host; rewrite (nf_host F); reflexivity).
    specialize (Hk3 Hh). unfold spec_marker in Em. unfold serialize_path in Hk3.
    destruct (su_host su); [discriminate Em|]. destruct (su_path su) as [p|[|p0 [|p1 pr]]]; try discriminate Em.
    destruct p0; [|discriminate Em]. discriminate Hk3. }
  rewrite (set_host_internal_eval dbg hd u h W Hx2) in E1. injection E1 as E1.
  rewrite (set_host_internal_port_eval dbg hd u h np W (fun Ha => conj (Hx2 Ha) Hsl)). rewrite E1.
  exists (with_port u1 np). split; [reflexivity|].
  apply corr_with_port; [exact C1 | | exact Hnp].
  rewrite (co_hh _ _ _ _ C1). cbn [Whatwg.set_host su_host host_is_null host_is_empty orb].
  destruct sh; try reflexivity. exfalso. apply Hne. apply Hem. reflexivity.
Qed.

Theorem host_colon_step u su v : host_fns_ok hp ho hd shp shs -> corr u su ->
  known_c07 u QHost v = 0 ->
  host_colon (no_tnl v) (st_is_special (scheme_type_of (su_scheme su))) = true ->
  exists u' su', option_map fst (q_set_host dbg hp ho hd u v) = Some u' /\ spec_step shp QHost su v = Some su'
    /\ corr u' su'.
Proof.
  intros HF C Hk E2. pose proof (co_wf _ _ _ _ C) as W.
  pose proof (cannot_be_a_base_eval u W) as Ecb.
  change (negb (byte_eqb (ser u) (scheme_end u + 1) 47)) with (is_opaque_b u) in Ecb.
  rewrite (co_opaque _ _ _ _ C) in Ecb.
  unfold spec_step. cbn [setter_of_q].
  destruct (has_opaque_path su) eqn:Hop.
  { unfold q_set_host. rewrite Ecb. cbn [bindo option_map fst spec_set]. rewrite Hop.
    exists u, su. split; [reflexivity|]. split; [reflexivity | exact C]. }
  unfold known_c07, u_cbb, u_scheme_or_empty, u_path_or_empty in Hk.
  rewrite Ecb, (co_scheme _ _ _ _ C), (co_path _ _ _ _ C), orb_false_r in Hk.
  destruct (list_eqb (su_scheme su) s_file) eqn:Ef; [discriminate Hk|].
  destruct (negb (has_host u) && starts_with s_ss (serialize_path su)) eqn:E3; [discriminate Hk|].
  pose proof (special_schemes_are_the_standards (su_scheme su)) as Esp. fold (is_special su) in Esp.
  rewrite Esp in Hk, E2.
  set (sp := is_special su) in *.
  destruct (negb sp && starts_with_byte 58 (no_tnl v)) eqn:Ec2; [discriminate Hk|]. clear Hk.
  change s_file with str_file in Ef.
  assert (has_host u = false -> starts_with s_ss (serialize_path su) = false) as Hk3.
  { intros Hh. rewrite Hh in E3. exact E3. }
  pose proof (host_scan_fst sp v false []) as Hfst. cbn [rev] in Hfst.
  pose proof (hscan_colon sp (ntnl v) false []) as Hcol.
  unfold host_colon in E2. change (no_tnl v) with (ntnl v) in E2, Ec2. rewrite E2 in Hcol.
  destruct (host_scan_rest_colon sp v false [] Hcol) as (rem' & Hrest & Hrem').
  assert (snd (hscan (is_special su) false [] (notnl v)) = true) as Hcol' by exact Hcol.
  rewrite (spec_host_colon shp su v Ef Hcol'), Hop. fold sp. change (notnl v) with (ntnl v).
  destruct (hscan sp false [] (ntnl v)) as [buf flag] eqn:Ehs. cbn [fst snd] in Hfst, Hcol |- *. subst flag.
  (* the model: up to the host parser *)
  assert (st_is_file (scheme_type_of (su_scheme su)) = false) as Enf by (rewrite file_test_same; exact Ef).
  assert (scheme_type_eqb (scheme_type_of (su_scheme su)) STFile = false
          /\ scheme_type_eqb (scheme_type_of (su_scheme su)) STSpecialNotFile = sp) as [Enf' Esnf].
  { rewrite <- Esp. destruct (scheme_type_of (su_scheme su)); [discriminate Enf | split; reflexivity | split; reflexivity]. }
  unfold q_set_host. rewrite Ecb. cbn [bindo]. rewrite (co_scheme _ _ _ _ C). cbn [bindo].
  rewrite Enf'. cbn [andb]. unfold parse_host, input_new_no_trim. rewrite Enf, Esp, Esnf.
  destruct (host_scan sp false [] v) as [h rem] eqn:Escan. cbn [fst snd] in Hfst, Hrest. subst h.
  replace (if negb sp then host <~ of_result (ho buf);; POk (host, rem) else host <~ of_result (hp buf);; POk (host, rem))
    with (host <~ of_result (if negb sp then ho buf else hp buf);; POk (host, rem)) by (destruct sp; reflexivity).
  assert (match (if negb sp then ho buf else hp buf), host_parsing shp (negb sp) buf with
          | Ok h, Some sh => hd h = shs sh /\ host_disp_ok hd h
                             /\ (h = HDomain [] <-> sh = SEmpty) /\ (h = HDomain [] <-> buf = [])
          | Err _, None => True
          | _, _ => False
          end) as K1.
  { destruct HF as [H0 H1]. destruct sp; [apply H0 | apply H1]. }
  unfold host_port_decide. fold sp.
  destruct buf as [|b0 br].
  - (* nothing before the ':' *)
    cbn [C01_EqAuthSpec.is_nil]. destruct sp; cbn [negb andb] in *.
    + cbn [pres_ok bindo option_map fst]. exists u, su. split; [reflexivity|]. split; [reflexivity | exact C].
    + exfalso. pose proof (hscan_colon_empty false (ntnl v)) as K. rewrite Ehs in K. cbn [fst snd] in K.
      rewrite (K eq_refl eq_refl) in Ec2. discriminate Ec2.
  - cbn [C01_EqAuthSpec.is_nil]. rewrite andb_false_r.
    destruct (if negb sp then ho (b0 :: br) else hp (b0 :: br)) as [hh|e] eqn:Eho;
      destruct (host_parsing shp (negb sp) (b0 :: br)) as [sh|] eqn:Ehp; try contradiction.
    2:{ cbn [of_result pbind pres_ok bindo option_map fst]. exists u, su. split; [reflexivity|]. split; [reflexivity | exact C]. }
    destruct K1 as (Kt & Kd & Ke & Ks).
    assert (hh <> HDomain []) as Hne by (intros X; apply Ks in X; discriminate X).
    cbn [of_result pbind pres_ok bindo]. rewrite Hrest. rewrite (co_user _ _ _ _ C).
    assert ((match hh with HDomain [] => true | _ => false end) = false) as Eeh
      by (destruct hh as [[|d0 dr]| |]; [exfalso; apply Hne; reflexivity | reflexivity ..]).
    set (su1 := Whatwg.set_host su (Some sh)).
    (* "no new port information": the host alone *)
    assert (exists u', (u' <- set_host_internal dbg hd u hh None;; Some (u', SOk)) = Some (u', SOk) /\ corr u' su1) as NoPort.
    { destruct (corr_set_host dbg hd shp shs u su hh sh C Hop Kt Kd Ke) as (u' & E & C'); [|exact Hk3|].
      { intros X. exfalso. exact (Hne X). }
      exists u'. rewrite E. split; [reflexivity | exact C']. }
    rewrite inp_is_empty_ntnl, Hrem'.
    destruct (hrest sp false (ntnl v)) as [|r0 rr] eqn:Er.
    + (* nothing behind the ':' *)
      cbn [bindo take_digits port_outcome outcome_url]. rewrite Eeh. cbn [andb].
      destruct NoPort as (u' & E & C'). rewrite E. cbn [option_map fst].
      exists u', su1. split; [reflexivity|]. split; [reflexivity | exact C'].
    + assert (notnl rem' <> []) as Hnn by (change (notnl rem') with (ntnl rem'); rewrite Hrem'; discriminate).
      pose proof (port_outcome_arg su1 rem' Hnn) as PO.
      change (notnl rem') with (ntnl rem') in PO. rewrite Hrem' in PO.
      change (su_scheme su1) with (su_scheme su) in PO. cbv zeta. fold su1. rewrite PO.
      pose proof (parse_port_setter (default_port (su_scheme su)) rem') as PS.
      destruct (parse_port CSetter (default_port (su_scheme su)) rem') as [[p prem]|e|]; [| |contradiction].
      * destruct PS as [Ka Kp]. rewrite Ka. cbn [bindo]. rewrite Eeh. cbn [andb].
        destruct (corr_set_host_port u su hh sh p C Hop Kt Kd Ke Hne Hk3 Kp) as (u' & E & C').
        rewrite E. cbn [bindo option_map fst]. exists u'. eexists. split; [reflexivity|]. split; [reflexivity | exact C'].
      * rewrite PS. cbn [bindo]. rewrite Eeh. cbn [andb].
        destruct NoPort as (u' & E & C'). rewrite E. cbn [option_map fst].
        exists u', su1. split; [reflexivity|]. split; [reflexivity | exact C'].
Qed.

End HostColon.
