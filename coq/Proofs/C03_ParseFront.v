(* Proofs/C03_ParseFront.v - what Parser::parse_url stores in front of the path, beyond wf_b:
     FD u : (PN) the stored port is not the default port of the stored scheme;
            (HE) with a special scheme the host text does not end in '/', and a special scheme other than
                 file has a host.
   FD is an invariant of the parser: every record parse_url returns satisfies it, from a base that is
   well-formed, satisfies bk (C05_BaseOk: a special scheme is followed by ":/") and FD.  Hypotheses on the host
   functions: HostWf (C03_ReachParts).  No hypothesis on the input, the encoding override or the build.
   The arms are those of C03_ReachFile.parse_arm:
     the authority state - the port comes out of parse_port (never the default it is given), the host out of
                           parse_host (phap_shape: its text is the display of the host returned);
     "scheme:path"       - no host, no port, and the scheme is not special;
     a kept front        - scheme, host kind, port and the text up to path_start are those of the base (same_fd);
     the file states     - "file://" + the display of a host returned by Host::parse, or the host text of
                           the (file) base, or no host; never a port.
   With wf_b: FD u <-> PN u /\ HE u (fd_pn_he). *)
From RU Require Import Base.Prelude Model.HostT Model.UrlRecord Model.Parser Model.WF Proofs.ListN
  Proofs.C06_List Proofs.C03_WF Proofs.C06_Tail Proofs.C06_Front Proofs.C06_Main Proofs.C06_FragQuery
  Proofs.C04_PathTotal Proofs.C04_ParseTotal Proofs.C03_ReachParts Proofs.C03_Reach Proofs.C03_ReachFile
  Proofs.C05_Parser Proofs.C05_ParseArms Proofs.C05_BaseOk Proofs.C05_AuthOfs Proofs.C05_AuthParse
  Proofs.C03_PortInv Proofs.C03_AuthEnd.
Open Scope N_scope.
Open Scope list_scope.

Definition htext (u : url) : list N := piece u (host_start u) (host_end u).

Definition PNr (u : url) : Prop := forall p, port u = Some p -> default_port (b_scheme u) <> Some p.
Definition HEr (u : url) : Prop :=
  st_is_special (scheme_type_of (b_scheme u)) = true ->
    (has_host u = true -> ends_with_byte 47 (htext u) = false)
    /\ (st_is_file (scheme_type_of (b_scheme u)) = false -> has_host u = true).
(* KE = True: both halves; KE = False: the port half alone (it does not need the host half of the base) *)
Definition FDk (KE : Prop) (u : url) : Prop := PNr u /\ (KE -> HEr u).
Notation FD := (FDk True).

Lemma scheme_bs u : wf_b u = true -> scheme u = Some (b_scheme u).
Proof. intros W. rewrite (scheme_text03 u W). reflexivity. Qed.

Lemma pnr_pn u : wf_b u = true -> (PNr u <-> PN u).
Proof.
  intros W. split.
  - intros H sch p Hs Hp. rewrite (scheme_bs u W) in Hs. inversion Hs; subst sch. exact (H p Hp).
  - intros H p Hp. exact (H _ p (scheme_bs u W) Hp).
Qed.

Lemma her_he u : wf_b u = true -> (HEr u <-> HE u).
Proof.
  intros W. split.
  - intros H sch Hs Hsp. rewrite (scheme_bs u W) in Hs. inversion Hs; subst sch. destruct (H Hsp) as [H1 H2]. split.
    + intros t Et. rewrite (host_str_eval u W) in Et. destruct (has_host u) eqn:Hh; [|discriminate].
      inversion Et; subst t. exact (H1 eq_refl).
    + intros Hnf. rewrite (host_str_eval u W), (H2 Hnf). eexists. reflexivity.
  - intros H Hsp. destruct (H _ (scheme_bs u W) Hsp) as [H1 H2]. split.
    + intros Hh. apply H1. rewrite (host_str_eval u W), Hh. reflexivity.
    + intros Hnf. destruct (H2 Hnf) as (t & Et). unfold host_str in Et. destruct (has_host u); [reflexivity | discriminate].
Qed.

Theorem fd_pn_he u : wf_b u = true -> (FD u <-> PN u /\ HE u).
Proof.
  intros W. unfold FDk. pose proof (pnr_pn u W) as A. pose proof (her_he u W) as B. tauto.
Qed.

(* the same scheme, host kind, host text and port *)
Definition same_fd (b u : url) : Prop :=
  b_scheme u = b_scheme b /\ hosti u = hosti b /\ port u = port b /\ (has_host b = true -> htext u = htext b).

Lemma same_fd_FD KE b u : same_fd b u -> FDk KE b -> FDk KE u.
Proof.
  intros (Es & Eh & Ep & Et) [P H]. assert (has_host u = has_host b) as Ehh by (unfold has_host; rewrite Eh; reflexivity).
  split.
  - intros p Hp. rewrite Es. rewrite Ep in Hp. exact (P p Hp).
  - intros ke. specialize (H ke). unfold HEr. rewrite Es, Ehh. intros Hsp. destruct (H Hsp) as [H1 H2]. split; [|exact H2].
    intros Hh. rewrite (Et Hh). exact (H1 Hh).
Qed.

(* a record that keeps the fields of the base and its serialization up to path_start *)
Lemma same_fd_pre b u : wf_b b = true -> agree_pre (path_start b) (ser b) (ser u) ->
  scheme_end u = scheme_end b -> host_start u = host_start b -> host_end u = host_end b ->
  hosti u = hosti b -> port u = port b -> same_fd b u.
Proof.
  intros W Hpre E1 E3 E4 E5 E6. pose proof (wf_se_lt_ps b W) as L. split; [|split; [exact E5|split; [exact E6|]]].
  - unfold b_scheme. rewrite E1. apply (pre_firstn _ _ _ _ Hpre). lia.
  - intros Hh. pose proof (has_host_authority b W Hh) as Ha. pose proof (af_ps (wf_auth_facts b W Ha)) as Lp.
    unfold htext, piece. rewrite E3, E4. apply (pre_piece _ _ _ _ _ Hpre). exact Lp.
Qed.

(* behind an authority ("scheme://", so a '/' at scheme_end + 2) with_query_and_fragment repairs no marker *)
Lemma marker_fix_auth se ps s s1 ps1 : marker_fix se ps s s1 ps1 -> se + 3 <= ps -> nnth s (se + 2) = Some 47 ->
  s1 = s /\ ps1 = ps.
Proof.
  intros [|E _|E E2 _] L B2; [split; reflexivity | lia|]. exfalso. apply list_eqb_spec in E2.
  replace (ps - se) with 3 in E2 by lia. destruct (nfirstn3_bytes _ _ _ _ _ E2) as (_ & _ & X). congruence.
Qed.

Lemma wqf_front ovr st se ue hs he hi pt ps s rem u :
  with_query_and_fragment ovr CUrlParser st se ue hs he hi pt ps s rem = POk u ->
  scheme_end u = se /\ host_start u = hs /\ host_end u = he /\ hosti u = hi /\ port u = pt
  /\ (se + 3 <= ps -> nnth s (se + 2) = Some 47 -> agree_pre (nlen s) s (ser u)).
Proof.
  intros H. destruct (with_query_and_fragment_steps ovr _ _ _ _ _ _ _ _ _ _ _ _ H) as (s1 & ps1 & s2 & qs & fs & M & Hq & ->).
  cbn [scheme_end host_start host_end hosti port ser]. repeat (split; [reflexivity|]). intros L B2.
  destruct (marker_fix_auth _ _ _ _ _ M L B2) as [-> _].
  destruct (pqf_shape _ _ _ _ _ _ _ _ Hq) as (q & f & -> & _). apply agree_pre_app_r.
Qed.

Section Arms.
Variable dbg : bool.
Variable hp hpo : list N -> result host.
Variable hd : host -> list N.
Variable ovr : option (list N -> list N).
Hypothesis HW : HostWf hp hpo hd.
Variable KE : Prop.
Local Notation FD := (FDk KE).

Lemma wf_text_nonempty h : host_text_wf (hd h) -> h <> HDomain [].
Proof using HW. intros (T1 & _) ->. destruct HW as (_ & _ & W3). rewrite W3 in T1. contradiction. Qed.

(* the front the authority state stores: the scheme in front of "//", the kind and the display text of the host it
   parsed, a port other than the default *)
Lemma ads_front st se ser0 l u : nlen ser0 = se + 1 -> st_is_file st = false ->
  after_double_slash dbg hp hpo hd ovr CUrlParser st se ser0 l = POk u ->
  exists h, b_scheme u = nfirstn se ser0 /\ hosti u = hi_of_host h /\ htext u = hd h
    /\ (forall p, port u = Some p -> default_port (nfirstn se ser0) <> Some p)
    /\ (st_is_special st = true -> host_text_wf (hd h)).
Proof using HW.
  intros L0 Hnf H.
  destruct (ads_shape hp hpo hd HW dbg ovr st se ser0 l u Hnf L0 H)
    as (x & ue & h & pt & s3 & rem & _ & Hp & Hh & A & B & _ & _ & _ & L1 & B2 & Hw).
  cbv zeta in *. set (ser1 := (ser0 ++ [47; 47]) ++ x) in *.
  assert (nlen (ser1 ++ hd h ++ ptext pt) = nlen ser1 + nlen (hd h) + nlen (ptext pt)) as L2 by (rewrite !nlen_app; lia).
  destruct (wqf_keep _ _ _ _ _ _ _ _ _ _ _ _ Hw ltac:(lia) B) as (K1 & K2 & _).
  destruct (wqf_front _ _ _ _ _ _ _ _ _ _ _ _ Hw) as (_ & E3 & E4 & E5 & E6 & Hpre).
  assert (agree_pre (nlen (ser1 ++ hd h ++ ptext pt)) (ser1 ++ hd h ++ ptext pt) (ser u)) as Hpre'.
  { eapply agree_pre_trans; [exact A|]. eapply agree_pre_le; [apply Hpre; [lia | exact B2] | exact B]. }
  exists h. split; [|split; [exact E5|split; [|split]]].
  - unfold b_scheme. rewrite K1, K2, (pre_firstn _ _ _ se A) by lia. subst ser1. rewrite <- !app_assoc.
    apply nfirstn_app_le. lia.
  - unfold htext, piece. rewrite E3, E4, (pre_piece _ _ _ _ _ Hpre') by lia.
    replace (nlen ser1 + nlen (hd h) - nlen ser1) with (nlen (hd h)) by lia.
    rewrite nskipn_app_exact. apply nfirstn_app_exact.
  - intros p Hp'. rewrite E6 in Hp'. rewrite Hp' in Hp. exact (proj2 Hp).
  - intros Esp. destruct Hh as [(_ & _ & _ & Hns)|Hh]; [congruence | exact Hh].
Qed.

Theorem ads_fd st se ser0 l u : nlen ser0 = se + 1 -> st_is_file st = false ->
  scheme_type_of (nfirstn se ser0) = st ->
  after_double_slash dbg hp hpo hd ovr CUrlParser st se ser0 l = POk u -> b_scheme u = nfirstn se ser0 /\ FD u.
Proof using HW.
  intros L0 Hnf Est H. destruct (ads_front st se ser0 l u L0 Hnf H) as (h & Eb & E5 & Et & Hpt & Hwf).
  split; [exact Eb|]. split.
  - intros p Hp. rewrite Eb. exact (Hpt p Hp).
  - intros _. unfold HEr. rewrite Eb, Est. intros Hsp. specialize (Hwf Hsp).
    assert (has_host u = true) as Hh.
    { unfold has_host. rewrite E5. pose proof (hi_of_nonempty h (wf_text_nonempty h Hwf)) as X.
      destruct (hi_of_host h); [contradiction | reflexivity ..]. }
    split; [|intros _; exact Hh]. intros _. rewrite Et. exact (proj2 (proj2 (proj2 Hwf))).
Qed.

(* a new path behind the front of the base *)
Lemma base_path_fd st b s rem u : wf_b b = true -> agree_pre (path_start b) (ser b) s -> path_start b <= nlen s ->
  with_query_and_fragment ovr CUrlParser st (scheme_end b) (username_end b) (host_start b) (host_end b)
    (hosti b) (port b) (path_start b) s rem = POk u -> same_fd b u.
Proof using.
  intros W Hpre Hl H. pose proof (wf_se_lt_ps b W) as L1.
  destruct (wqf_keep _ _ _ _ _ _ _ _ _ _ _ _ H ltac:(lia) Hl) as (K1 & K2 & _).
  destruct (wqf_front _ _ _ _ _ _ _ _ _ _ _ _ H) as (_ & E3 & E4 & E5 & E6 & Hp).
  split; [|split; [exact E5|split; [exact E6|]]].
  - unfold b_scheme. rewrite K1, K2. apply (pre_firstn _ _ _ _ Hpre). lia.
  - intros Hh. pose proof (has_host_authority b W Hh) as Ha. pose proof (wf_auth_facts b W Ha) as F.
    pose proof (af_ue F); pose proof (af_hs F); pose proof (af_he F); pose proof (af_ps F).
    assert (nnth (ser b) (scheme_end b + 2) = Some 47) as B2.
    { pose proof Ha as Ha'. unfold has_authority_b in Ha'. apply css_bytes in Ha'. exact (proj2 (proj2 Ha')). }
    assert (agree_pre (path_start b) (ser b) (ser u)) as Hpre2.
    { eapply agree_pre_trans; [exact Hpre|]. eapply agree_pre_le; [apply Hp; [lia|] | exact Hl].
      rewrite (pre_nnth _ _ _ _ Hpre) by lia. exact B2. }
    unfold htext, piece. rewrite E3, E4. apply (pre_piece _ _ _ _ _ Hpre2). lia.
Qed.

(* a reference that keeps the front of the base keeps scheme, host kind, host text and port *)
Lemma base_arm_same_fd b u : wf_b b = true -> base_arm ovr b u -> same_fd b u.
Proof using.
  intros W [-> | st se l s qs fs Hq -> | l H | st s rem A C _ H].
  - apply (same_fd_pre b _ W); try reflexivity. exact (bf_pre b W).
  - apply (same_fd_pre b _ W); try reflexivity. cbn [ser url_with].
    destruct (pqf_shape _ _ _ _ _ _ _ _ Hq) as (q & f & -> & _). destruct (bq_shape b W) as (Ebq & P1 & P2).
    eapply agree_pre_trans; [exact (bq_pre b W)|]. apply agree_pre_app_le. rewrite Ebq, nlen_nfirstn by exact P2. exact P1.
  - revert H. unfold fragment_only. cbv zeta. intros H. pb H fs Hfs. inversion H; subst u. clear H.
    apply (same_fd_pre b _ W); try reflexivity. cbn [ser]. rewrite parse_fragment_text, <- app_assoc.
    destruct (wf_ps_le_path_end b W) as [L2 L3].
    eapply agree_pre_trans; [exact (bf_pre b W)|]. apply agree_pre_app_le.
    unfold b_before_fragment. destruct (fragment_start b) as [f|] eqn:Ef; [|lia].
    destruct (bf_len b f W Ef) as [Lf Hpe]. rewrite Lf. lia.
  - pose proof (nnth_lt _ _ _ C) as L. apply (base_path_fd st b s rem u W A); [lia | exact H].
Qed.

(* "scheme:path" of a non-special scheme: the scheme as parsed, no host, no port *)
Lemma no_authority_front se ser0 s rem u : nlen ser0 = se + 1 -> agree_pre (se + 1) ser0 s -> se + 1 <= nlen s ->
  with_query_and_fragment ovr CUrlParser STNotSpecial se (se + 1) (se + 1) (se + 1) HI_None None (se + 1) s rem = POk u ->
  b_scheme u = nfirstn se ser0 /\ hosti u = HI_None /\ port u = None.
Proof using.
  intros L0 A L H. destruct (wqf_keep _ _ _ _ _ _ _ _ _ _ _ _ H (N.le_refl _) L) as (K1 & K2 & _).
  destruct (wqf_front _ _ _ _ _ _ _ _ _ _ _ _ H) as (_ & _ & _ & E5 & E6 & _).
  split; [|split; assumption]. unfold b_scheme. rewrite K1, K2. apply (pre_firstn _ _ _ _ A). lia.
Qed.

Lemma file_url_fd s hs he hi qs fs : nfirstn 7 s = s_file_css ->
  (KE -> hi <> HI_None -> ends_with_byte 47 (nfirstn (he - hs) (nskipn hs s)) = false) ->
  FD (file_url s hs he hi qs fs).
Proof using.
  intros P7 Ht.
  assert (b_scheme (file_url s hs he hi qs fs) = s_file) as Eb.
  { unfold b_scheme, file_url. cbn [scheme_end ser]. rewrite <- (nfirstn_nfirstn 4 7 s) by lia. rewrite P7. reflexivity. }
  split.
  - intros p Hp. discriminate Hp.
  - intros ke. unfold HEr. rewrite Eb. intros _. split; [|intros X; discriminate X].
    intros Hh. unfold htext, piece, file_url. cbn [host_start host_end ser]. apply (Ht ke).
    intros E. unfold has_host, file_url in Hh. cbn [hosti] in Hh. rewrite E in Hh. discriminate.
Qed.

Theorem parse_arm_fd base u : match base with Some b => wf_b b = true /\ FD b | None => True end ->
  parse_arm dbg hp hpo hd ovr base u -> FD u.
Proof using HW.
  intros Hb [st se ser0 l Hs Hnf Est H | se ser0 s rem Hs Est A L _ H | b -> B | st s he hi t rem s4 qs fs P F C _ Hq ->].
  - exact (proj2 (ads_fd st se ser0 l u (proj2 (proj2 (proj2 (proj2 Hs)))) Hnf Est H)).
  - destruct (no_authority_front se ser0 s rem u (proj2 (proj2 (proj2 (proj2 Hs)))) A L H) as (Eb & _ & Ep).
    split; [intros p Hp; rewrite Ep in Hp; discriminate Hp|]. intros _. unfold HEr. rewrite Eb, Est. intros X. discriminate X.
  - destruct Hb as [W Fb]. exact (same_fd_FD KE b u (base_arm_same_fd b u W B) Fb).
  - pose proof (nnth_lt _ _ _ C) as Lh. destruct (file_text_split s he t P ltac:(lia)) as (Lt & P7 & Et).
    destruct (pqf_shape _ _ _ _ _ _ _ _ Hq) as (q & f & -> & _). apply file_url_fd.
    + rewrite nfirstn_app_le by lia. exact P7.
    + intros ke Hn. rewrite (pre_piece (nlen s) s _ 7 he (agree_pre_app_r s _)) by lia. rewrite Et.
      destruct F as [|h _ Hwf|b -> Ef Hh]; [contradiction | exact (proj2 (proj2 (proj2 Hwf)))|].
      destruct Hb as [_ [_ Hhe]]. specialize (Hhe ke). unfold HEr in Hhe.
      assert (st_is_special (scheme_type_of (b_scheme b)) = true) as Esp by (destruct (scheme_type_of (b_scheme b)); [reflexivity | discriminate Ef ..]).
      exact (proj1 (Hhe Esp) Hh).
Qed.

Theorem parse_file_fd st base_file l u :
  match base_file with
  | Some b => wf_b b = true /\ sl1 b /\ FD b /\ scheme_type_of (b_scheme b) = STFile
  | None => True
  end ->
  parse_file dbg hp hd ovr CUrlParser st base_file l = POk u -> FD u.
Proof using HW.
  intros Hb H. apply (parse_arm_fd base_file u).
  - destruct base_file as [b|]; [|exact I]. destruct Hb as (W & _ & Fb & _). split; assumption.
  - apply (parse_file_arm dbg hp hpo hd ovr HW st base_file l u); [|exact H].
    destruct base_file as [b|]; [|exact I]. destruct Hb as (W & _ & _ & Est). rewrite Est. split; [exact W | reflexivity].
Qed.

Theorem parse_url_fd base input u :
  match base with Some b => wf_b b = true /\ bk b /\ FD b | None => True end ->
  parse_url dbg hp hpo hd ovr base input = POk u -> FD u.
Proof using HW.
  intros Hb H. apply (parse_arm_fd base u).
  - destruct base as [b|]; [|exact I]. destruct Hb as (W & _ & Fb). split; assumption.
  - apply (parse_url_arm dbg hp hpo hd ovr HW base input u); [|exact H].
    destruct base as [b|]; [|exact I]. destruct Hb as (W & K & _). apply base_ok_iff. split; assumption.
Qed.

End Arms.

(* the port half alone: no premise on the host text of the base *)
Theorem parse_url_pnr dbg hp hpo hd ovr base input u : HostWf hp hpo hd ->
  match base with Some b => wf_b b = true /\ bk b /\ PNr b | None => True end ->
  parse_url dbg hp hpo hd ovr base input = POk u -> PNr u.
Proof.
  intros HW Hb Hp. refine (proj1 (parse_url_fd dbg hp hpo hd ovr HW False base input u _ Hp)).
  destruct base as [b|]; [|exact I]. destruct Hb as (W & K & P). split; [exact W|]. split; [exact K|].
  split; [exact P | intros X; contradiction].
Qed.

(* every parse result: wf_b, host_text_ok, AS, PN, HE - from a base with the same *)
Definition inv03 (u : url) : Prop := wfh u /\ AS u /\ PN u /\ HE u.

Theorem parse_url_inv03 dbg hp hpo hd ovr base input u : HostWf hp hpo hd ->
  match base with Some b => inv03 b | None => True end ->
  parse_url dbg hp hpo hd ovr base input = POk u -> inv03 u.
Proof.
  intros HW Hb Hp.
  destruct (parse_url_as_base_ok dbg hp hpo hd ovr base input u HW) as (W & HT & A); [|exact Hp|].
  { destruct base as [b|]; [|exact I]. destruct Hb as ([Wb Tb] & Ab & _). split; [exact Wb|]. split; assumption. }
  split; [split; assumption|]. split; [exact A|]. apply (fd_pn_he u W).
  apply (parse_url_fd dbg hp hpo hd ovr HW True base input u); [|exact Hp].
  destruct base as [b|]; [|exact I]. destruct Hb as ([Wb Tb] & Ab & Pb & Eb).
  split; [exact Wb|]. split; [exact (as_bk b Wb Ab)|]. apply (fd_pn_he b Wb). split; assumption.
Qed.
