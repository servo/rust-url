(* Proofs/C09_V4spec.v - the IPv4 side of the model equals the Standard's algorithms
   (Spec/WhatwgHost.v) on all inputs. *)
From RU Require Import Base.Prelude Model.AsciiSet Model.HostT Model.Host Spec.WhatwgHost Proofs.C09_V4.

(* ------------------------------------------------------------------ strictly split *)

Lemma strictly_split_aux_eq s : forall tok,
  Spec.strictly_split_aux 46 s tok = (let '(h, t) := split_dot s in (rev tok ++ h) :: t).
Proof.
  induction s as [|c r IH]; intros tok; cbn [Spec.strictly_split_aux split_dot].
  - rewrite app_nil_r. reflexivity.
  - destruct (c =? 46).
    + rewrite IH. destruct (split_dot r) as [h t]. cbn [rev app]. rewrite app_nil_r. reflexivity.
    + rewrite IH. destruct (split_dot r) as [h t]. cbn [rev]. rewrite <- app_assoc. reflexivity.
Qed.

Lemma strictly_split_eq s : Spec.strictly_split 46 s = split_dot_list s.
Proof. unfold Spec.strictly_split, split_dot_list. rewrite strictly_split_aux_eq. destruct (split_dot s). reflexivity. Qed.

Lemma split_dot_list_single s : split_dot_list s = [[]] -> s = [].
Proof.
  destruct s as [|c r]; [reflexivity|]. unfold split_dot_list. cbn [split_dot].
  destruct (split_dot r) as [h t]. destruct (c =? 46); discriminate.
Qed.

Lemma split_dot_list_nonnil s : split_dot_list s <> [].
Proof. unfold split_dot_list. destruct (split_dot s). discriminate. Qed.

(* ------------------------------------------------------------------ digits *)

Definition valid (R : N) (c : N) : bool := match hex_val c with Some d => d <? R | None => false end.

Lemma spec_digit c :
  match hex_val c with
  | Some d => Spec.ascii_hex_digit c = true /\ Spec.digit_value c = d
  | None => Spec.ascii_hex_digit c = false
  end.
Proof.
  pose proof (hex_val_spec c) as H. unfold Spec.ascii_hex_digit, Spec.digit_value, Spec.ascii_digit.
  destruct (hex_val c) as [d|]; [|lia]. split; [lia|].
  destruct ((48 <=? c) && (c <=? 57)) eqn:E1; [lia|]. destruct (c <=? 70) eqn:E2; lia.
Qed.

Lemma spec_valid R c : (Spec.ascii_hex_digit c && (Spec.digit_value c <? R)) = valid R c.
Proof.
  unfold valid. pose proof (spec_digit c) as H. destruct (hex_val c) as [d|].
  - destruct H as [-> ->]. reflexivity.
  - rewrite H. reflexivity.
Qed.

Lemma forallb_eq {A} (f g : A -> bool) l : (forall x, f x = g x) -> forallb f l = forallb g l.
Proof. intros H. induction l as [|x l IH]; cbn [forallb]; [reflexivity|]. rewrite H, IH. reflexivity. Qed.

Lemma valid8 c : is_octal_digit c = valid 8 c.
Proof. pose proof (hex_val_spec c) as H. unfold is_octal_digit, valid. destruct (hex_val c); lia. Qed.
Lemma valid10 c : is_digit c = valid 10 c.
Proof. pose proof (hex_val_spec c) as H. unfold is_digit, valid. destruct (hex_val c); lia. Qed.
Lemma valid16 c : is_hex_digit c = valid 16 c.
Proof. pose proof (hex_val_spec c) as H. unfold is_hex_digit, valid. destruct (hex_val c); lia. Qed.

(* ------------------------------------------------------------------ radix value *)

Lemma radix_value_none R s : forall acc, Spec.radix_value R s acc = None <-> forallb (valid R) s = false.
Proof.
  induction s as [|c t IH]; intros acc; cbn [Spec.radix_value forallb]; [split; discriminate|].
  rewrite spec_valid. destruct (valid R c); cbn [andb]; [apply IH | split; reflexivity].
Qed.

Lemma radix_value_mono R s : forall acc v, 1 <= R -> Spec.radix_value R s acc = Some v -> acc <= v.
Proof.
  induction s as [|c t IH]; intros acc v HR H; cbn [Spec.radix_value] in H; [inversion H; lia|].
  destruct (Spec.ascii_hex_digit c && (Spec.digit_value c <? R)); [|discriminate].
  apply IH in H; [nia|exact HR].
Qed.

Lemma radix_value_acc R s : forall acc v, 1 <= R -> Spec.radix_value R s acc = Some v -> acc <= U32_MAX ->
  radix_acc R s acc = if v <=? U32_MAX then Some v else None.
Proof.
  induction s as [|c t IH]; intros acc v HR H Ha; cbn [Spec.radix_value radix_acc] in *.
  - inversion H; subst. replace (v <=? U32_MAX) with true by lia. reflexivity.
  - rewrite spec_valid in H. unfold valid in H. pose proof (spec_digit c) as Hd.
    destruct (hex_val c) as [d|]; [|discriminate]. destruct Hd as [_ Hd]. rewrite Hd in H.
    destruct (d <? R); [|discriminate].
    destruct (U32_MAX <? acc * R + d) eqn:E.
    + apply radix_value_mono in H; [|exact HR]. replace (v <=? U32_MAX) with false by lia. reflexivity.
    + apply IH; [exact HR|exact H|lia].
Qed.

(* ------------------------------------------------------------------ IPv4 number parser *)

Definition num_rel (m : option (option N)) (sp : option N) : Prop :=
  match sp with
  | None => m = None
  | Some v => m = if v <=? U32_MAX then Some (Some v) else Some None
  end.

(* the common tail: digits in radix R, non-empty *)
Lemma number_tail R (f : N -> bool) s : 1 <= R -> (forall c, f c = valid R c) -> s <> [] ->
  num_rel (if negb (forallb f s) then None
           else match u32_from_str_radix s R with Some num => Some (Some num) | None => Some None end)
          (Spec.radix_value R s 0).
Proof.
  intros HR Hf Hn. rewrite (forallb_eq f (valid R) s Hf). unfold num_rel.
  destruct (Spec.radix_value R s 0) as [v|] eqn:E.
  - assert (Hv : forallb (valid R) s = true).
    { destruct (forallb (valid R) s) eqn:E2; [reflexivity|]. apply radix_value_none with (acc := 0) in E2. congruence. }
    rewrite Hv. cbn [negb]. rewrite (from_str_radix_acc s R Hn Hv).
    rewrite (radix_value_acc R s 0 v HR E) by (unfold U32_MAX; lia).
    destruct (v <=? U32_MAX); reflexivity.
  - apply radix_value_none in E. rewrite E. reflexivity.
Qed.

Theorem number_rel p : num_rel (parse_ipv4number p) (Spec.ipv4_number p).
Proof.
  destruct p as [|c0 [|c1 rest]].
  - reflexivity.
  - unfold parse_ipv4number, Spec.ipv4_number. cbn [length Nat.leb andb].
    replace (10 =? 8) with false by reflexivity. replace (10 =? 10) with true by reflexivity.
    apply (number_tail 10 is_digit [c0]); [lia|exact valid10|discriminate].
  - unfold parse_ipv4number, Spec.ipv4_number, Spec.has_prefix.
    cbn [length Nat.leb andb firstn list_eqb skipn].
    rewrite !andb_true_r.
    replace ((c0 =? 48) && (c1 =? 88) || (c0 =? 48) && (c1 =? 120)) with ((c0 =? 48) && ((c1 =? 120) || (c1 =? 88)))
      by (destruct (c0 =? 48), (c1 =? 120), (c1 =? 88); reflexivity).
    destruct ((c0 =? 48) && ((c1 =? 120) || (c1 =? 88))).
    + destruct rest as [|c2 rest']; [reflexivity|].
      replace (16 =? 8) with false by reflexivity. replace (16 =? 10) with false by reflexivity.
      apply (number_tail 16 is_hex_digit (c2 :: rest')); [lia|exact valid16|discriminate].
    + destruct (c0 =? 48).
      * replace (8 =? 8) with true by reflexivity.
        apply (number_tail 8 is_octal_digit (c1 :: rest)); [lia|exact valid8|discriminate].
      * replace (10 =? 8) with false by reflexivity. replace (10 =? 10) with true by reflexivity.
        apply (number_tail 10 is_digit (c0 :: c1 :: rest)); [lia|exact valid10|discriminate].
Qed.

(* ------------------------------------------------------------------ ends-in-a-number checker *)

Lemma last_rev {A} (l : list A) d : last l d = match rev l with x :: _ => x | [] => d end.
Proof.
  destruct l as [|a l] using rev_ind; [reflexivity|]. rewrite last_last, rev_app_distr. reflexivity.
Qed.

Lemma removelast_rev {A} (l : list A) : removelast l = match rev l with _ :: r => rev r | [] => [] end.
Proof.
  destruct l as [|a l] using rev_ind; [reflexivity|]. rewrite removelast_last, rev_app_distr. cbn [rev app].
  rewrite rev_involutive. reflexivity.
Qed.

Lemma is_digit_spec c : Spec.ascii_digit c = is_digit c.
Proof. reflexivity. Qed.

Theorem ends_in_a_number_spec s : ends_in_a_number s = Spec.ends_in_a_number s.
Proof.
  unfold ends_in_a_number, Spec.ends_in_a_number. rewrite strictly_split_eq.
  pose proof (split_dot_list_nonnil s) as Hn.
  rewrite last_rev. rewrite removelast_rev.
  assert (Hlen : length (split_dot_list s) = length (rev (split_dot_list s))) by (rewrite rev_length; reflexivity).
  rewrite Hlen.
  assert (Hr : rev (split_dot_list s) <> []).
  { intros E. apply Hn. rewrite <- (rev_involutive (split_dot_list s)), E. reflexivity. }
  remember (rev (split_dot_list s)) as rp eqn:Erp.
  assert (Eparts : split_dot_list s = rev rp) by (rewrite Erp, rev_involutive; reflexivity).
  rewrite Eparts. clear Erp Eparts Hlen Hn.
  assert (T : forall l : list N,
    (if negb (match l with [] => true | _ => false end) && forallb is_digit l then true
     else match parse_ipv4number l with Some _ => true | None => false end)
    = (if negb (length l =? 0)%nat && forallb Spec.ascii_digit l then true
       else match Spec.ipv4_number l with Some _ => true | None => false end)).
  { intros l. replace (length l =? 0)%nat with (match l with [] => true | _ => false end) by (destruct l; reflexivity).
    rewrite (forallb_eq Spec.ascii_digit is_digit l is_digit_spec).
    destruct (negb match l with [] => true | _ => false end && forallb is_digit l); [reflexivity|].
    pose proof (number_rel l) as NR. unfold num_rel in NR.
    destruct (Spec.ipv4_number l) as [v|]; rewrite NR; [destruct (v <=? U32_MAX); reflexivity | reflexivity]. }
  destruct rp as [|lastp parts]; [congruence|].
  destruct lastp as [|c l].
  - destruct parts as [|l2 parts']; [reflexivity|].
    cbn [length Nat.eqb]. rewrite last_rev, rev_involutive. exact (T l2).
  - rewrite last_rev, rev_involutive. exact (T (c :: l)).
Qed.

(* ------------------------------------------------------------------ IPv4 parser *)

Definition lift4 (o : option N) : xr N := match o with Some a => XOk a | None => XErr InvalidIpv4Address end.

(* numbers: the model stops at an overflowing part, the Standard keeps the unbounded value *)
Lemma numbers_rel parts :
  match Spec.all_numbers parts with
  | None => ipv4_numbers parts = None
  | Some vs => ipv4_numbers parts = (if forallb (fun v => v <=? U32_MAX) vs then Some vs else None)
               /\ length vs = length parts
  end.
Proof.
  induction parts as [|p r IH]; cbn [Spec.all_numbers ipv4_numbers]; [split; reflexivity|].
  pose proof (number_rel p) as NR. unfold num_rel in NR.
  destruct (Spec.ipv4_number p) as [v|].
  - rewrite NR. destruct (Spec.all_numbers r) as [vs|].
    + destruct IH as [IH Hl]. cbn [forallb length]. split; [|rewrite Hl; reflexivity].
      destruct (v <=? U32_MAX); [|reflexivity]. rewrite IH. cbn [andb].
      destruct (forallb (fun v0 => v0 <=? U32_MAX) vs); reflexivity.
    + destruct (v <=? U32_MAX); [rewrite IH|]; reflexivity.
  - rewrite NR. reflexivity.
Qed.

Ltac norm_consts := repeat match goal with
  | |- context [N.shiftr 4294967295 (8 * N.of_nat ?k)] =>
      let v := eval vm_compute in (N.shiftr 4294967295 (8 * N.of_nat k)) in
      change (N.shiftr 4294967295 (8 * N.of_nat k)) with v
  | |- context [256 ^ (5 - N.of_nat ?k)] =>
      let v := eval vm_compute in (256 ^ (5 - N.of_nat k)) in change (256 ^ (5 - N.of_nat k)) with v
  | |- context [8 * (3 - ?c)] => let v := eval vm_compute in (8 * (3 - c)) in change (8 * (3 - c)) with v
  | |- context [256 ^ (3 - ?c)] => let v := eval vm_compute in (256 ^ (3 - c)) in change (256 ^ (3 - c)) with v
  | |- context [2 ^ 24] => change (2 ^ 24) with 16777216
  | |- context [2 ^ 16] => change (2 ^ 16) with 65536
  | |- context [2 ^ 8] => change (2 ^ 8) with 256
  end.

Theorem parse_ipv4addr_spec s : s <> [] -> parse_ipv4addr s = lift4 (Spec.ipv4_parse s).
Proof.
  intros Hs. unfold parse_ipv4addr, Spec.ipv4_parse. rewrite strictly_split_eq.
  pose proof (split_dot_list_nonnil s) as Hn.
  assert (H1 : split_dot_list s <> [[]]) by (intros E; apply Hs; apply split_dot_list_single; exact E).
  rewrite last_rev, removelast_rev.
  assert (Hlen : length (split_dot_list s) = length (rev (split_dot_list s))) by (rewrite rev_length; reflexivity).
  rewrite Hlen.
  remember (rev (split_dot_list s)) as rp eqn:Erp.
  assert (Eparts : split_dot_list s = rev rp) by (rewrite Erp, rev_involutive; reflexivity).
  rewrite Eparts in *. clear Erp Hlen.
  (* both pops give the same parts *)
  set (parts := match rp with [] :: r => rev r | _ => rev rp end).
  assert (Epop : match rp with
                 | [] => [1]
                 | x :: _ => x
                 end = [] -> (if (1 <? length rp)%nat then match rp with _ :: r => rev r | [] => [] end else rev rp) = parts).
  { intros E. destruct rp as [|x r]; [discriminate|]. subst x. unfold parts.
    destruct r as [|y r']; [exfalso; apply H1; reflexivity|]. reflexivity. }
  assert (Eparts2 : match match rp with [] => [1] | x :: _ => x end with
                    | [] => if (1 <? length rp)%nat then match rp with _ :: r => rev r | [] => [] end else rev rp
                    | _ :: _ => rev rp
                    end = parts).
  { destruct rp as [|x r]; [reflexivity|]. destruct x as [|c x']; [apply Epop; reflexivity | reflexivity]. }
  rewrite Eparts2.
  assert (Hpn : parts <> []).
  { unfold parts. destruct rp as [|x r]; [exfalso; apply Hn; reflexivity|].
    destruct x as [|c x'].
    - destruct r as [|y r']; [exfalso; apply H1; reflexivity|]. cbn [rev]. destruct (rev r'); discriminate.
    - cbn [rev]. destruct (rev r); discriminate. }
  clearbody parts. clear Eparts2 Epop Eparts H1 Hn rp Hs.
  replace (4 <? N.of_nat (length parts)) with (4 <? length parts)%nat by lia.
  destruct (4 <? length parts)%nat eqn:E4; [reflexivity|].
  pose proof (numbers_rel parts) as NR.
  destruct (Spec.all_numbers parts) as [vs|]; [|rewrite NR; reflexivity].
  destruct NR as [NR Hl]. rewrite NR.
  assert (Hvl : (1 <= length vs <= 4)%nat). { rewrite Hl. destruct parts; [congruence|]. cbn [length] in *. lia. }
  unfold U32_MAX.
  destruct vs as [|a [|b [|c [|d [|e vs']]]]]; cbn [length] in Hvl; try lia; clear NR Hl Hvl E4 Hpn;
    cbn [forallb]; rewrite ?andb_true_r;
    match goal with |- context [if ?b then Some _ else None] => destruct b eqn:EF end;
    cbn [rev app removelast last existsb length Spec.add_numbers ipv4_add_parts lift4 orb andb];
    unfold U32_MAX; norm_consts; rewrite ?N.shiftl_mul_pow2; norm_consts;
    repeat (rewrite ?N.mod_small by lia;
            match goal with
            | |- context [if ?b then _ else _] => let E := fresh "E" in destruct b eqn:E; try lia
            end);
    try reflexivity; try (cbn [lift4]; f_equal; lia).
Qed.
