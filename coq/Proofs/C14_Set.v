(* Proofs/C14_Set.v - the bit-mask set behaves as a subset of the 128 ASCII values. *)
From RU Require Import Base.Prelude Model.AsciiSet.

Lemma land_pow2_testbit w k : negb (N.land w (N.shiftl 1 k) =? 0) = N.testbit w k.
Proof.
  rewrite N.shiftl_1_l.
  destruct (N.testbit w k) eqn:E.
  - apply negb_true_iff. apply N.eqb_neq. intros H.
    assert (N.testbit (N.land w (2 ^ k)) k = false) as H1 by (rewrite H; apply N.bits_0).
    rewrite N.land_spec, E, N.pow2_bits_true in H1. discriminate.
  - apply negb_false_iff. apply N.eqb_eq. apply N.bits_inj_0. intros j.
    rewrite N.land_spec, N.pow2_bits_eqb.
    destruct (N.eqb_spec k j) as [->|Hne]; [rewrite E; reflexivity | apply andb_false_r].
Qed.

Definition wordb (s : aset) (i : N) : N :=
  match word s i with Some w => w | None => 0 end.

Lemma word_none s i : word s i = None -> 4 <= i.
Proof.
  unfold word. destruct i as [|[[p|p|]|[p|p|]|]]; try discriminate; intros _; lia.
Qed.

Lemma word_none_ge s i : 4 <= i -> word s i = None.
Proof.
  unfold word. destruct i as [|[[p|p|]|[p|p|]|]]; try reflexivity; intros; lia.
Qed.

Lemma contains_testbit s b : b < 128 ->
  aset_contains s b = N.testbit (wordb s (b / 32)) (b mod 32).
Proof.
  intros Hb. unfold aset_contains, aset_contains_o, wordb.
  assert (b / 32 < 4) as Hq by lia.
  destruct (word s (b / 32)) as [w|] eqn:E.
  - apply land_pow2_testbit.
  - exfalso. apply word_none in E. lia.
Qed.

Lemma word_set_word s i v j : i < 4 -> j < 4 ->
  wordb (set_word s i v) j = if i =? j then v else wordb s j.
Proof.
  intros Hi Hj. unfold wordb, set_word, word.
  assert (i = 0 \/ i = 1 \/ i = 2 \/ i = 3) as Ci by lia.
  assert (j = 0 \/ j = 1 \/ j = 2 \/ j = 3) as Cj by lia.
  destruct Ci as [->|[->|[->| ->]]]; destruct Cj as [->|[->|[->| ->]]]; reflexivity.
Qed.

Lemma word_some s i : i < 4 -> word s i = Some (wordb s i).
Proof.
  intros Hi. unfold wordb, word.
  assert (i = 0 \/ i = 1 \/ i = 2 \/ i = 3) as Ci by lia.
  destruct Ci as [->|[->|[->| ->]]]; reflexivity.
Qed.

(* the same word and the same bit: the same value.  `lia` reads `/` and `mod` through the zify hook of Base/Prelude.v. *)
Lemma same_bit x y : (x / 32 =? y / 32) && (x mod 32 =? y mod 32) = (x =? y).
Proof. lia. Qed.

Lemma u32max_testbit k : k < 32 -> N.testbit U32_MAX k = true.
Proof.
  intros Hk. unfold U32_MAX. change 4294967295 with (N.ones 32).
  apply N.ones_spec_low. exact Hk.
Qed.

(* membership after the word of x has been replaced by v *)
Lemma contains_set_word s x v y : x < 128 -> y < 128 ->
  aset_contains (set_word s (x / 32) v) y =
  if x / 32 =? y / 32 then N.testbit v (y mod 32) else aset_contains s y.
Proof.
  intros Hx Hy. rewrite !contains_testbit by assumption. rewrite word_set_word by lia.
  destruct (x / 32 =? y / 32); reflexivity.
Qed.

Theorem contains_add s x y : x < 128 -> y < 128 ->
  aset_contains (aset_add s x) y = (x =? y) || aset_contains s y.
Proof.
  intros Hx Hy. unfold aset_add, aset_add_o. rewrite (word_some s (x / 32)) by lia.
  rewrite contains_set_word, <- (same_bit x y) by assumption.
  destruct (N.eqb_spec (x / 32) (y / 32)) as [Eq|Ne]; [|reflexivity].
  rewrite N.lor_spec, N.shiftl_1_l, N.pow2_bits_eqb, Eq, <- contains_testbit by exact Hy.
  apply orb_comm.
Qed.

Theorem contains_remove s x y : x < 128 -> y < 128 ->
  aset_contains (aset_remove s x) y = negb (x =? y) && aset_contains s y.
Proof.
  intros Hx Hy. unfold aset_remove, aset_remove_o. rewrite (word_some s (x / 32)) by lia.
  rewrite contains_set_word, <- (same_bit x y) by assumption.
  destruct (N.eqb_spec (x / 32) (y / 32)) as [Eq|Ne]; [|reflexivity].
  rewrite N.land_spec, N.lxor_spec, N.shiftl_1_l, N.pow2_bits_eqb, u32max_testbit, Eq, <- contains_testbit by lia.
  rewrite xorb_true_r. apply andb_comm.
Qed.

Lemma wordb_union a b i : i < 4 ->
  wordb (aset_union a b) i = N.lor (wordb a i) (wordb b i).
Proof.
  intros Hi. assert (i = 0 \/ i = 1 \/ i = 2 \/ i = 3) as Ci by lia.
  destruct Ci as [->|[->|[->| ->]]]; reflexivity.
Qed.

Theorem contains_union a b y : y < 128 ->
  aset_contains (aset_union a b) y = aset_contains a y || aset_contains b y.
Proof.
  intros Hy. rewrite !contains_testbit by assumption.
  rewrite wordb_union by lia. apply N.lor_spec.
Qed.

Lemma wordb_complement a i : i < 4 ->
  wordb (aset_complement a) i = N.lxor (wordb a i) U32_MAX.
Proof.
  intros Hi. assert (i = 0 \/ i = 1 \/ i = 2 \/ i = 3) as Ci by lia.
  destruct Ci as [->|[->|[->| ->]]]; reflexivity.
Qed.

Theorem contains_complement a y : y < 128 ->
  aset_contains (aset_complement a) y = negb (aset_contains a y).
Proof.
  intros Hy. rewrite !contains_testbit by assumption.
  rewrite wordb_complement by lia. rewrite N.lxor_spec, u32max_testbit by lia.
  apply xorb_true_r.
Qed.

Theorem contains_empty y : aset_contains aset_empty y = false.
Proof.
  unfold aset_contains, aset_contains_o, aset_empty, word. cbn [w0 w1 w2 w3].
  destruct (y / 32) as [|[[p|p|]|[p|p|]|]]; try reflexivity; rewrite N.land_0_l; reflexivity.
Qed.

(* AsciiSet::add panics (word index out of 0..3) exactly for arguments >= 128 (known finding F-C04-4 / F-C14-1);
   aset_add_o returns None for the panic.  Properties/C14.v states it as C14_add_panics_iff. *)
Theorem add_panics_iff s x : aset_add_o s x = None <-> 128 <= x.
Proof.
  unfold aset_add_o. split.
  - intros H. destruct (N.lt_ge_cases x 128) as [Hlt|Hge]; [|exact Hge].
    rewrite (word_some s (x / 32)) in H by lia. discriminate.
  - intros H. rewrite word_none_ge by lia. reflexivity.
Qed.

(* the `or` of two u32 values is a u32 value *)
Lemma lor_u32 a b : a <= U32_MAX -> b <= U32_MAX -> N.lor a b <= U32_MAX.
Proof.
  unfold U32_MAX. intros Ha Hb.
  assert (N.lor a b < 2 ^ 32) as H; [|change (2^32) with 4294967296 in H; lia].
  destruct (N.eq_dec (N.lor a b) 0) as [->|Hne]; [reflexivity|].
  apply N.log2_lt_pow2; [lia|]. rewrite N.log2_lor.
  apply N.max_lub_lt.
  - destruct (N.eq_dec a 0) as [->|Hane]; [reflexivity|]. apply N.log2_lt_pow2; [lia|]. change (2^32) with 4294967296. lia.
  - destruct (N.eq_dec b 0) as [->|Hbne]; [reflexivity|]. apply N.log2_lt_pow2; [lia|]. change (2^32) with 4294967296. lia.
Qed.
