(* Proofs/C01_EqShape.v - the shape condition on base records (base_shape_ok: a special non-file record of the
   Standard is not opaque and has a host) holds of every record the Standard returns in the proved classes,
   when the base record (if any) met it.  With agree_good (Proofs/C01_EqAsm.v) this closes the base relation
   full_base = good_base + base_shape_ok under the assembled theorem: everything reachable from parse
   results by resolving references is a base of the theorem again. *)
From RU Require Import Base.Prelude Model.HostT Model.UrlRecord Model.Parser Model.Setters Spec.Whatwg
  Proofs.C01_EqRun Proofs.C01_EqRef Proofs.C01_EqPathSpec Proofs.C01_EqEmpty Proofs.C01_EqClasses
  Proofs.C01_EqAuthSpec Proofs.C01_EqClasses2 Proofs.C01_EqRel Proofs.C01_EqRelArms Proofs.C01_EqSpSpec
  Proofs.C01_EqSp Proofs.C01_EqAbs Proofs.C01_EqSpBase Proofs.C01_EqSpBare Proofs.C01_EqAsm.

Definition base_shape_ok (sb : spec_url) : bool :=
  negb (is_special_scheme (su_scheme sb)) || list_eqb (su_scheme sb) str_file || sp_base_ok sb.

(* what the condition looks at *)
Definition shape_of (u : spec_url) : list N * option spec_host * bool := (su_scheme u, su_host u, has_opaque_path u).

Lemma shape_ok_of_shape u v : shape_of v = shape_of u -> base_shape_ok v = base_shape_ok u.
Proof.
  unfold shape_of. intros H. injection H as H1 H2 H3. unfold base_shape_ok, sp_base_ok. rewrite H1, H2, H3. reflexivity.
Qed.

Lemma shape_nonspecial u : is_special_scheme (su_scheme u) = false -> base_shape_ok u = true.
Proof. intros H. unfold base_shape_ok. rewrite H. reflexivity. Qed.

Lemma shape_sp u : sp_base_ok u = true -> base_shape_ok u = true.
Proof. intros H. unfold base_shape_ok. rewrite H. apply orb_true_r. Qed.

Lemma tail_url_shape u r : shape_of (tail_url u r) = shape_of u.
Proof.
  unfold tail_url. destruct r as [|c r]; [reflexivity|]. destruct (c =? 63).
  - unfold query_final, frag_opt. destruct (C01_EqRun.after_hash r); destruct u; reflexivity.
  - destruct u; reflexivity.
Qed.

Lemma shape_set_fragment u f : shape_of (set_fragment u f) = shape_of u.
Proof. destruct u; reflexivity. Qed.
Lemma shape_set_query u q : shape_of (set_query u q) = shape_of u.
Proof. destruct u; reflexivity. Qed.

(* non-special results keep the scheme *)
Lemma sauth_tail_scheme u X : su_scheme (sauth_tail u X) = su_scheme u.
Proof.
  unfold sauth_tail. destruct X as [|c r]; [reflexivity|]. destruct (c =? 47).
  - pose proof (tail_url_shape (set_path u (SPList (fst (spath r [] [])))) (snd (spath r [] []))) as H.
    unfold shape_of in H. injection H as H _ _. rewrite H. destruct u; reflexivity.
  - pose proof (tail_url_shape u (c :: r)) as H. unfold shape_of in H. injection H as H _ _. exact H.
Qed.

Lemma sauth_scheme shp sch T su : sauth shp sch T = Some su -> su_scheme su = sch.
Proof.
  unfold sauth. destruct (after_at T) as [W HR].
  destruct (opt_is_some W && starts_ae HR); [discriminate|].
  assert (su_scheme (cred_of W (set_scheme empty_url sch)) = sch) as Hc.
  { destruct W as [w|]; cbn [cred_of]; [rewrite ac_scheme|]; reflexivity. }
  revert Hc. generalize (cred_of W (set_scheme empty_url sch)). intros u Hc.
  unfold sauth_host.
  assert (forall v PR, su_scheme v = sch -> sauth_port v PR = Some su -> su_scheme su = sch) as HP.
  { intros v PR Hv. unfold sauth_port. destruct (negb (starts_ae (after_digits PR))); [discriminate|].
    destruct (is_nil (digits_of PR)).
    - intros H. inversion H. rewrite sauth_tail_scheme. exact Hv.
    - destruct (65535 <? decimal_value (digits_of PR)); [discriminate|].
      intros H. inversion H. rewrite sauth_tail_scheme. destruct v; exact Hv. }
  destruct (port_split (hs_rest false HR)) as [PR|].
  - destruct (is_nil (hs_host false HR)); [discriminate|].
    destruct (host_parsing shp true (hs_host false HR)) as [sh|]; [|discriminate].
    apply HP. destruct u; exact Hc.
  - destruct (host_parsing shp true (hs_host false HR)) as [sh|]; [|discriminate].
    intros H. inversion H. rewrite sauth_tail_scheme. destruct u; exact Hc.
Qed.

Lemma nonspecial_result_scheme shp sch R su : nonspecial_result shp sch R = Some su -> su_scheme su = sch.
Proof.
  assert (forall u r, su_scheme (tail_url u r) = su_scheme u) as HT.
  { intros u r. pose proof (tail_url_shape u r) as H. unfold shape_of in H. injection H as H _ _. exact H. }
  assert (forall x, Some (tail_url (set_path (set_path (set_scheme empty_url sch) (SPOpaque []))
                                  (SPOpaque ([] ++ upe in_c0_control_set (o_path x)))) (o_rest x)) = Some su -> su_scheme su = sch) as KO.
  { intros x H. injection H as <-. rewrite HT. reflexivity. }
  assert (forall x, Some (tail_url (set_path (set_scheme empty_url sch) (SPList (fst (spath x [] [])))) (snd (spath x [] []))) = Some su ->
                    su_scheme su = sch) as KP.
  { intros x H. injection H as <-. rewrite HT. reflexivity. }
  unfold nonspecial_result. destruct R as [|c1 R1]; [exact (KO [])|].
  destruct (N.eq_dec c1 47) as [->|Hne].
  2:{ intros H. apply (KO (c1 :: R1)).
      destruct c1 as [|p]; [exact H|]. do 6 (destruct p as [p|p|]; try exact H). exfalso. apply Hne. reflexivity. }
  destruct R1 as [|c2 T]; [exact (KP [])|].
  destruct (N.eq_dec c2 47) as [->|Hne2]; [exact (sauth_scheme shp sch T su)|].
  intros H. apply (KP (c2 :: T)).
  destruct c2 as [|p]; [exact H|]. do 6 (destruct p as [p|p|]; try exact H). exfalso. apply Hne2. reflexivity.
Qed.

(* special results have a host and a list path *)
Lemma sp_base_ok_of_shape u sch sh : shape_of u = (sch, Some sh, false) ->
  is_special_scheme sch = true -> list_eqb sch str_file = false -> sp_base_ok u = true.
Proof.
  unfold shape_of. intros H Hsp Hnf. injection H as H1 H2 H3. unfold sp_base_ok. rewrite H1, H2, H3, Hsp, Hnf. reflexivity.
Qed.

Lemma sauth_tail_s_shape u X : shape_of (sauth_tail_s u X) = (su_scheme u, su_host u, false).
Proof. unfold sauth_tail_s. rewrite tail_url_shape. destruct u; reflexivity. Qed.

Lemma sauth_s_shape shp sch T su : is_special_scheme sch = true -> list_eqb sch str_file = false ->
  sauth_s shp sch T = Some su -> sp_base_ok su = true.
Proof.
  intros Hsp Hnf. unfold sauth_s.
  assert (su_scheme (cred_of (fst (after_at_s T)) (set_scheme empty_url sch)) = sch) as Hc.
  { destruct (fst (after_at_s T)) as [w|]; cbn [cred_of]; [rewrite ac_scheme|]; reflexivity. }
  revert Hc. generalize (cred_of (fst (after_at_s T)) (set_scheme empty_url sch)). intros u Hc.
  unfold sauth_host_g. cbv zeta.
  destruct (is_nil ([] ++ hss_host false (snd (after_at_s T)))); [discriminate|].
  destruct (host_parsing shp false ([] ++ hss_host false (snd (after_at_s T)))) as [sh|]; [|discriminate].
  assert (su_scheme (set_host u (Some sh)) = sch /\ su_host (set_host u (Some sh)) = Some sh) as [K1 K2]
    by (destruct u; split; [exact Hc | reflexivity]).
  destruct (port_split (hss_rest false (snd (after_at_s T)))) as [PR|].
  - unfold sauth_port_g. cbv zeta.
    destruct (negb (starts_aes (after_digits PR))); [discriminate|].
    destruct (is_nil ([] ++ digits_of PR)).
    + intros H. inversion H. apply (sp_base_ok_of_shape _ sch sh); [|exact Hsp | exact Hnf].
      rewrite sauth_tail_s_shape, K1, K2. reflexivity.
    + destruct (65535 <? decimal_value ([] ++ digits_of PR)); [discriminate|].
      intros H. inversion H. apply (sp_base_ok_of_shape _ sch sh); [|exact Hsp | exact Hnf].
      rewrite sauth_tail_s_shape. clear K1 K2 H. destruct u as [x1 x2 x3 x4 x5 x6 x7 x8].
      cbn [su_scheme su_host set_port set_host] in *. rewrite Hc. reflexivity.
  - intros H. inversion H. apply (sp_base_ok_of_shape _ sch sh); [|exact Hsp | exact Hnf].
    rewrite sauth_tail_s_shape, K1, K2. reflexivity.
Qed.

Lemma rel_path_result_s_shape sb P t : sp_base_ok sb = true -> sp_base_ok (rel_path_result_s sb P t) = true.
Proof.
  intros Hb. destruct (sp_base_ok_facts sb Hb) as (Hop & Hsp & Hnf & h & Eh).
  apply (sp_base_ok_of_shape _ (su_scheme sb) h); [|exact Hsp | exact Hnf].
  unfold rel_path_result_s. rewrite tail_url_shape. unfold shape_of, rel_keep. cbn [su_scheme su_host has_opaque_path su_path].
  rewrite Eh. reflexivity.
Qed.

Lemma shape_bare_result sb R : su_scheme (bare_result sb R) = su_scheme sb /\ su_host (bare_result sb R) = su_host sb
  /\ has_opaque_path (bare_result sb R) = has_opaque_path sb.
Proof.
  unfold bare_result. destruct R as [|c r]; [destruct sb; repeat split|].
  destruct (c =? 63); [|destruct sb; repeat split].
  unfold ref_result. destruct (option_map (upe in_fragment_set) (C01_EqRun.after_hash r)); destruct sb; repeat split.
Qed.

(* no base *)
Section Shapes.
Variable shp : bool -> list N -> option spec_host.

Theorem nobase_result_shape input su : in_proved_nobase3 input = true ->
  spec_basic_url_parse shp input None = BDone su -> base_shape_ok su = true.
Proof.
  intros Hc HS.
  destruct (spec_scheme (spec_clean input)) as [[sch R]|] eqn:Es.
  - destruct (is_special_scheme sch) eqn:Hsp.
    + assert (in_class_special input = true) as Hcs.
      { unfold in_proved_nobase3 in Hc.
        assert (in_class_opaque input = false) as E1 by (unfold in_class_opaque; rewrite Es, Hsp; reflexivity).
        assert (in_class_pathonly input = false) as E2
          by (unfold in_class_pathonly; rewrite Es, Hsp; destruct R as [|c r]; [reflexivity|];
              destruct c as [|p]; [reflexivity|]; do 6 (destruct p as [p|p|]; try reflexivity)).
        assert (in_class_authority input = false) as E3
          by (unfold in_class_authority; rewrite Es, Hsp; destruct R as [|c1 [|c2 T]]; reflexivity).
        assert (in_class_noscheme_nobase input = false) as E4 by (unfold in_class_noscheme_nobase; rewrite Es; reflexivity).
        rewrite E1, E2, E3, E4 in Hc. cbn [orb] in Hc. rewrite orb_false_r in Hc. exact Hc. }
      unfold in_class_special in Hcs. rewrite Es in Hcs.
      apply andb_true_iff in Hcs. destruct Hcs as [Hcs _]. apply andb_true_iff in Hcs. destruct Hcs as [_ Hnf].
      apply negb_true_iff in Hnf.
      pose proof (spec_special shp input sch R Es Hsp Hnf) as K.
      destruct (sauth_s shp sch (drop_sl R)) as [su'|] eqn:Esa.
      * rewrite K in HS. inversion HS; subst su'. apply shape_sp. exact (sauth_s_shape shp sch _ su Hsp Hnf Esa).
      * destruct K as [uf K]. rewrite K in HS. discriminate HS.
    + pose proof (spec_nonspecial_any shp None input sch R Es Hsp) as K.
      destruct (nonspecial_result shp sch R) as [su'|] eqn:En; cbn [outcome_is] in K.
      * rewrite K in HS. inversion HS; subst su'. apply shape_nonspecial.
        rewrite (nonspecial_result_scheme shp sch R su En). exact Hsp.
      * destruct K as [uf K]. rewrite K in HS. discriminate HS.
  - assert (in_class_noscheme_nobase input = true) as Hn by (unfold in_class_noscheme_nobase; rewrite Es; reflexivity).
    destruct (class_noscheme_nobase true (fun _ => Err EmptyHost) (fun _ => Err EmptyHost) (fun _ => []) None shp input Hn) as [[uf K] _].
    rewrite K in HS. discriminate HS.
Qed.

(* a base *)
Theorem base_result_shape input sb su : usv_list input -> spec_valid sb -> base_shape_ok sb = true ->
  in_proved_class3 (Some sb) input = true ->
  spec_basic_url_parse shp input (Some sb) = BDone su -> base_shape_ok su = true.
Proof.
  intros Hu V Hshape Hc HS. cbn [in_proved_class3] in Hc.
  destruct (in_proved_class (Some sb) input) eqn:E1.
  { (* '#', '?', empty, opaque-base failure: the shape of the base *)
    clear Hc. cbn [in_proved_class] in E1. apply orb_true_iff in E1. destruct E1 as [Hc|Hc];
      [apply orb_true_iff in Hc; destruct Hc as [Hc|Hc]; [apply orb_true_iff in Hc; destruct Hc as [Hc|Hc]|]|].
    - unfold in_class_fragment_only in Hc.
      destruct (spec_clean input) as [|c f] eqn:Ec; [discriminate|]. cbn [starts_with_cp] in Hc.
      apply N.eqb_eq in Hc. subst c.
      rewrite (spec_fragment_only shp input sb f Ec V) in HS. inversion HS.
      rewrite (shape_ok_of_shape sb _ (shape_set_fragment sb _)). exact Hshape.
    - unfold in_class_query_only in Hc. apply andb_true_iff in Hc. destruct Hc as [H1 H2].
      destruct (spec_clean input) as [|c q] eqn:Ec; [discriminate|]. cbn [starts_with_cp] in H2.
      apply N.eqb_eq in H2. subst c. apply negb_true_iff in H1.
      rewrite (spec_query_only shp input sb q Ec V H1) in HS. inversion HS. unfold ref_result.
      rewrite (shape_ok_of_shape sb _ (eq_trans (shape_set_fragment _ _) (shape_set_query sb _))). exact Hshape.
    - exfalso. unfold in_class_opaque_base_fail in Hc.
      apply andb_true_iff in Hc. destruct Hc as [Hc H3]. apply andb_true_iff in Hc. destruct Hc as [H1 H2].
      assert (spec_scheme (spec_clean input) = None) as Hs by (destruct (spec_scheme (spec_clean input)); [discriminate | reflexivity]).
      apply negb_true_iff in H3.
      destruct (spec_opaque_base_fails shp input sb Hs H3 H1) as [uf K]. rewrite K in HS. discriminate HS.
    - unfold in_class_empty_ref in Hc. apply andb_true_iff in Hc. destruct Hc as [H1 H2]. apply negb_true_iff in H1.
      destruct (spec_clean input) eqn:Ec; [|discriminate].
      rewrite (spec_empty_ref true (fun _ => Err EmptyHost) (fun _ => Err EmptyHost) shp input sb Ec V H1) in HS. inversion HS.
      rewrite (shape_ok_of_shape sb _ (shape_set_fragment sb _)). exact Hshape. }
  cbn [in_proved_class] in E1. rewrite E1 in Hc. cbn [orb] in Hc.
  destruct (in_class_relative sb input) eqn:Hrel.
  { (* non-special base: the result keeps its scheme *)
    clear Hc. unfold in_class_relative in Hrel. apply orb_true_iff in Hrel.
    destruct Hrel as [Hrel|Hrel]; [apply orb_true_iff in Hrel; destruct Hrel as [Hrel|Hrel]|].
    - unfold in_class_rel_abs in Hrel. apply andb_true_iff in Hrel. destruct Hrel as [Hrel Hok].
      apply andb_true_iff in Hrel. destruct Hrel as [Hop Hnsp]. apply negb_true_iff in Hop, Hnsp.
      destruct (spec_clean input) as [|c t] eqn:Ecl; [discriminate Hok|].
      apply andb_true_iff in Hok. destruct Hok as [Hok _]. apply andb_true_iff in Hok. destruct Hok as [E47 H47].
      apply N.eqb_eq in E47. subst c. apply negb_true_iff in H47.
      rewrite (spec_rel_abs shp input sb t Hop Hnsp Ecl H47) in HS. inversion HS.
      apply shape_nonspecial. destruct (rel_path_result_front sb [] t) as [-> _]. exact Hnsp.
    - unfold in_class_rel_path in Hrel. apply andb_true_iff in Hrel. destruct Hrel as [Hrel Hok].
      apply andb_true_iff in Hrel. destruct Hrel as [Hrel Hsch]. apply andb_true_iff in Hrel. destruct Hrel as [Hop Hnsp].
      apply negb_true_iff in Hop, Hnsp.
      assert (spec_scheme (spec_clean input) = None) as Hs by (destruct (spec_scheme (spec_clean input)); [discriminate | reflexivity]).
      destruct (spec_clean input) as [|c t] eqn:Ecl; [discriminate Hok|].
      apply andb_true_iff in Hok. destruct Hok as [Hok _]. apply andb_true_iff in Hok. destruct Hok as [Hok E35].
      apply andb_true_iff in Hok. destruct Hok as [E47 E63]. apply negb_true_iff in E47, E63, E35.
      rewrite (spec_rel_path shp input sb c t Hop Hnsp Ecl Hs E47 E63 E35) in HS. inversion HS.
      apply shape_nonspecial. destruct (rel_path_result_front sb (removelast (Whatwg.path_segments sb)) (c :: t)) as [-> _]. exact Hnsp.
    - unfold in_class_rel_authority in Hrel. apply andb_true_iff in Hrel. destruct Hrel as [Hrel Hok].
      apply andb_true_iff in Hrel. destruct Hrel as [Hop Hnsp]. apply negb_true_iff in Hop, Hnsp.
      destruct (spec_clean input) as [|c1 [|c2 T]] eqn:Ecl; try discriminate Hok.
      apply andb_true_iff in Hok. destruct Hok as [Hok _]. apply andb_true_iff in Hok. destruct Hok as [E1' E2'].
      apply N.eqb_eq in E1', E2'. subst c1 c2.
      pose proof (spec_rel_authority shp input sb T Hop Hnsp Ecl) as K.
      destruct (sauth shp (su_scheme sb) T) as [su'|] eqn:Esa.
      + rewrite K in HS. inversion HS; subst su'. apply shape_nonspecial. rewrite (sauth_scheme shp _ T su Esa). exact Hnsp.
      + destruct K as [uf K]. rewrite K in HS. discriminate HS. }
  cbn [orb] in Hc.
  destruct (in_class_abs_base sb input) eqn:Habs.
  { (* base ignored: the no-base result *)
    clear Hc. unfold in_class_abs_base in Habs.
    destruct (spec_scheme (spec_clean input)) as [[sch R0]|] eqn:Es; [|discriminate Habs].
    apply andb_true_iff in Habs. destruct Habs as [Hbi Hnb].
    assert (outcome_eq (spec_basic_url_parse shp input (Some sb)) (spec_basic_url_parse shp input None)) as OE.
    { apply orb_true_iff in Hbi. destruct Hbi as [Hbi|Hbi];
        [exact (spec_base_ignored shp (Some sb) input sch R0 Es Hbi) | exact (spec_same_two_sl shp sb input sch R0 Es Hbi)]. }
    rewrite HS in OE. unfold outcome_eq in OE.
    destruct (spec_basic_url_parse shp input None) as [su0|uf|] eqn:HS0; try contradiction. subst su0.
    exact (nobase_result_shape input su Hnb HS0). }
  cbn [orb] in Hc.
  (* special base *)
  apply shape_sp. unfold in_class_relative_s in Hc. apply orb_true_iff in Hc.
  destruct Hc as [Hc|Hc];
    [apply orb_true_iff in Hc; destruct Hc as [Hc|Hc];
     [apply orb_true_iff in Hc; destruct Hc as [Hc|Hc];
      [apply orb_true_iff in Hc; destruct Hc as [Hc|Hc]; [apply orb_true_iff in Hc; destruct Hc as [Hc|Hc]|]|]|]|].
  - unfold in_class_rel_abs_s in Hc. apply andb_true_iff in Hc. destruct Hc as [Hb Hok].
    destruct (sp_base_ok_facts sb Hb) as (Hop & Hsp & Hnf & h & Eh).
    destruct (spec_clean input) as [|c t] eqn:Ecl; [discriminate Hok|].
    apply andb_true_iff in Hok. destruct Hok as [Hok _]. apply andb_true_iff in Hok. destruct Hok as [Hc1 Ht].
    apply negb_true_iff in Ht.
    assert (match t with c2 :: _ => is_sl c2 = false | [] => True end) as Ht' by (destruct t; [exact I | exact Ht]).
    pose proof (runs_rel_abs_s shp _ sb Hop Hsp Hnf c t eq_refl Hc1 Ht' (is_sl_scheme_none c t Hc1)) as HR.
    rewrite <- Ecl in HR. rewrite (spec_parse_of_runs _ _ _ _ HR) in HS. inversion HS. apply rel_path_result_s_shape. exact Hb.
  - unfold in_class_rel_path_s in Hc. apply andb_true_iff in Hc. destruct Hc as [Hc Hok]. apply andb_true_iff in Hc. destruct Hc as [Hb Hsch].
    destruct (sp_base_ok_facts sb Hb) as (Hop & Hsp & Hnf & h & Eh).
    assert (spec_scheme (spec_clean input) = None) as Hs by (destruct (spec_scheme (spec_clean input)); [discriminate | reflexivity]).
    destruct (spec_clean input) as [|c t] eqn:Ecl; [discriminate Hok|].
    apply andb_true_iff in Hok. destruct Hok as [Hok _]. apply andb_true_iff in Hok. destruct Hok as [Hok E35].
    apply andb_true_iff in Hok. destruct Hok as [Esl E63]. apply negb_true_iff in Esl, E63, E35.
    pose proof (runs_rel_path_s shp (c :: t) sb Hop Hsp Hnf c t eq_refl Hs Esl E63 E35) as HR.
    rewrite <- Ecl in HR at 1 2. rewrite (spec_parse_of_runs _ _ _ _ HR) in HS. inversion HS. apply rel_path_result_s_shape. exact Hb.
  - apply andb_true_iff in Hc. destruct Hc as [_ Hc].
    unfold in_class_rel_authority_s in Hc.
    apply andb_true_iff in Hc. destruct Hc as [Hc Hok]. apply andb_true_iff in Hc. destruct Hc as [Hc Hnf].
    apply andb_true_iff in Hc. destruct Hc as [Hop Hsp]. apply negb_true_iff in Hop, Hnf.
    destruct (spec_clean input) as [|c1 [|c2 T]] eqn:Ecl; try discriminate Hok.
    apply andb_true_iff in Hok. destruct Hok as [Hok _]. apply andb_true_iff in Hok. destruct Hok as [H1 H2].
    pose proof (runs_rel_authority_s shp _ sb Hop Hsp Hnf c1 c2 T eq_refl H1 H2 (is_sl_scheme_none c1 (c2 :: T) H1)) as HR.
    rewrite <- Ecl in HR.
    destruct (sauth_s shp (su_scheme sb) (drop_sl T)) as [su'|] eqn:Esa; cbn [out_is] in HR.
    + rewrite (spec_parse_of_runs _ _ _ _ HR) in HS. inversion HS; subst su'. exact (sauth_s_shape shp _ _ su Hsp Hnf Esa).
    + destruct HR as [uf HR]. rewrite (spec_parse_of_runs _ _ _ _ HR) in HS. discriminate HS.
  - assert (sp_base_ok sb = true) as Hb by (unfold in_class_same_abs_s in Hc; apply andb_true_iff in Hc; tauto).
    destruct (same_abs_s_spec shp input sb Hc) as [t K]. rewrite K in HS. inversion HS. apply rel_path_result_s_shape. exact Hb.
  - assert (sp_base_ok sb = true) as Hb by (unfold in_class_same_path_s in Hc; apply andb_true_iff in Hc; tauto).
    destruct (same_path_s_spec shp input sb Hc) as [t K]. rewrite K in HS. inversion HS. apply rel_path_result_s_shape. exact Hb.
  - assert (sp_base_ok sb = true) as Hb by (unfold in_class_same_bare in Hc; apply andb_true_iff in Hc; tauto).
    destruct (same_bare_spec (fun _ => Err EmptyHost) (fun _ => Err EmptyHost) shp (fun _ => []) input sb Hc) as [R0 K]. rewrite K in HS. inversion HS.
    unfold sp_base_ok in *. destruct (shape_bare_result sb R0) as (-> & -> & ->). exact Hb.
Qed.

End Shapes.

(* the closed base relation *)
Definition full_base (dbg : bool) (shs : spec_host -> list N) (b : url) (sb : spec_url) : Prop :=
  good_base dbg shs b sb /\ base_shape_ok sb = true.

Theorem class3_result_full dbg shs shp input base sbase m su u :
  usv_list input ->
  match base, sbase with
  | None, None => True
  | Some b, Some sb => full_base dbg shs b sb
  | _, _ => False
  end ->
  in_proved_class3 sbase input = true ->
  spec_basic_url_parse shp input sbase = BDone su ->
  agree_good dbg shs m (BDone su) -> m = POk u -> full_base dbg shs u su.
Proof.
  intros Hu Hb Hc HS A Hm. split; [exact (agree_good_chain dbg shs m su u A Hm)|].
  destruct base as [b|]; destruct sbase as [sb|]; try contradiction.
  - destruct Hb as [[R Hok] Hshape]. exact (base_result_shape shp input sb su Hu (rel_valid _ _ _ _ R) Hshape Hc HS).
  - exact (nobase_result_shape shp input su Hc HS).
Qed.
