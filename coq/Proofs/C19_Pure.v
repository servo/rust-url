(* Proofs/C19_Pure.v - the panic-free, code-point-level reading of Model/Mime.v, and the proof that on
   a `&str` (a list of Unicode scalar values) the model computes exactly that: the `unwrap` of split2
   and the table index of only_http_token_code_points never fail, and the byte-level token test is
   the code-point-level test "every code point is an RFC 7230 tchar". *)
From RU Require Import Base.Prelude Base.Utf8 Base.Utf8Facts Model.Mime Proofs.C19_Tables.

Definition plist : Type := list (list N * list N).

(* unfolding lemmas for the scanner scan_quoted (a nested fixpoint) *)
Lemma scan_nil pieces acc :
  scan_quoted pieces [] acc =
  match pieces with
  | piece :: rest => scan_quoted rest piece (59 :: acc)
  | [] => (rev acc, [])
  end.
Proof. destruct pieces; reflexivity. Qed.

Lemma scan_cons pieces c cs acc :
  scan_quoted pieces (c :: cs) acc =
  if c =? 34 then (rev acc, pieces)
  else if c =? 92 then
    match cs with
    | c2 :: cs2 => scan_quoted pieces cs2 (c2 :: acc)
    | [] => match pieces with
            | piece :: rest => scan_quoted rest piece (59 :: acc)
            | [] => (rev (92 :: acc), [])
            end
    end
  else scan_quoted pieces cs (c :: acc).
Proof. destruct pieces; reflexivity. Qed.

Definition tokens (s : list N) : bool := forallb rfc7230_tchar s.

Lemma utf8_encode1_head c :
  is_usv c -> 128 <= c -> exists b0 r, utf8_encode1 c = b0 :: r /\ 128 <= b0 /\ b0 < 256.
Proof.
  intros Hc Hge. unfold utf8_encode1, is_usv in *.
  replace (c <? 128) with false by lia.
  destruct (c <? 2048) eqn:E2; [eexists; eexists; split; [reflexivity|lia]|].
  destruct (c <? 65536) eqn:E3; eexists; eexists; (split; [reflexivity|lia]).
Qed.

Lemma tchar_false_high b : 128 <= b -> rfc7230_tchar b = false.
Proof.
  intros H. destruct (rfc7230_tchar b) eqn:E; [|reflexivity]. apply tchar_ascii in E. lia.
Qed.

Lemma only_tok_spec s : usv_list s -> only_http_token_code_points s = Ok (tokens s).
Proof.
  unfold only_http_token_code_points, tokens.
  induction s as [|c s IH]; intros H.
  - reflexivity.
  - inversion H as [|? ? Hc Hs]; subst. unfold utf8_encode. cbn [flat_map forallb].
    fold (utf8_encode s).
    destruct (c <? 128) eqn:E.
    + unfold utf8_encode1. rewrite E. cbn [app all_token_bytes].
      rewrite is_http_token_at_spec by lia. cbn [bind].
      destruct (rfc7230_tchar c); [exact (IH Hs)|reflexivity].
    + destruct (utf8_encode1_head c Hc) as [b0 [r [He [Hlo Hhi]]]]; [lia|].
      rewrite He. cbn [app all_token_bytes].
      rewrite is_http_token_at_spec by exact Hhi. cbn [bind].
      rewrite (tchar_false_high b0 Hlo). rewrite (tchar_false_high c) by lia. reflexivity.
Qed.

Lemma tokens_ascii s : tokens s = true -> ascii s.
Proof.
  unfold tokens, ascii. induction s as [|c s IH]; cbn [forallb]; intros H.
  - constructor.
  - apply andb_true_iff in H. destruct H as [H1 H2]. constructor; [exact (tchar_ascii c H1)|exact (IH H2)].
Qed.

Lemma ascii_usv s : ascii s -> usv_list s.
Proof.
  unfold ascii, usv_list, is_ascii, is_usv. intros H. eapply Forall_impl; [|exact H]. cbv beta. intros; lia.
Qed.

Lemma utf8_encode_ascii s : ascii s -> utf8_encode s = s.
Proof.
  unfold ascii, is_ascii. induction s as [|c s IH]; intros H.
  - reflexivity.
  - inversion H as [|? ? Hc Hs]; subst. unfold utf8_encode. cbn [flat_map]. fold (utf8_encode s).
    unfold utf8_encode1. replace (c <? 128) with true by lia. cbn [app]. f_equal. exact (IH Hs).
Qed.

(* split2 never takes the Panic branch *)
Lemma split2_spec s sep : split2 s sep = Ok (split_once sep s).
Proof. unfold split2, splitn2. destruct (split_once sep s) as [a [b|]]; reflexivity. Qed.

(* whatever holds of every code point of the input holds of every code point of what the functions return *)
Section Sub.
  Variable P : N -> Prop.

  Lemma trim_start_Forall s : Forall P s -> Forall P (trim_start s).
  Proof.
    induction s as [|c s IH]; intros H; cbn [trim_start]; [constructor|].
    destruct (http_whitespace c); [|exact H]. inversion H; subst. apply IH. assumption.
  Qed.

  Lemma trim_end_Forall s : Forall P s -> Forall P (trim_end s).
  Proof.
    induction s as [|c s IH]; intros H; cbn [trim_end]; [constructor|].
    inversion H as [|? ? Hc Hs]; subst. specialize (IH Hs).
    destruct (trim_end s) as [|x r].
    - destruct (http_whitespace c); repeat constructor. exact Hc.
    - constructor; assumption.
  Qed.

  Lemma split_once_Forall sep s :
    Forall P s ->
    Forall P (fst (split_once sep s)) /\
    match snd (split_once sep s) with Some b => Forall P b | None => True end.
  Proof.
    induction s as [|c s IH]; intros H; cbn [split_once].
    - cbn. split; [constructor|exact I].
    - inversion H as [|? ? Hc Hs]; subst. destruct (c =? sep).
      + cbn. split; [constructor|exact Hs].
      + destruct (split_once sep s) as [a b]. cbn [fst snd] in *. destruct (IH Hs) as [Ha Hb].
        split; [constructor; assumption|exact Hb].
  Qed.

  Lemma split_all_Forall sep s :
    Forall P s -> Forall P (fst (split_all sep s)) /\ Forall (Forall P) (snd (split_all sep s)).
  Proof.
    induction s as [|c s IH]; intros H; cbn [split_all].
    - cbn. split; constructor.
    - inversion H as [|? ? Hc Hs]; subst. destruct (split_all sep s) as [p ps]. cbn [fst snd] in *.
      destruct (IH Hs) as [Hp Hps]. destruct (c =? sep); cbn [fst snd].
      + split; [constructor|constructor; assumption].
      + split; [constructor; assumption|exact Hps].
  Qed.

End Sub.

(* induction along the inner loop of Mime.scan_quoted, which eats one character, or two after a backslash *)
Lemma list_ind_2step (A : Type) (Q : list A -> Prop) :
  Q [] -> (forall c, Q [c]) -> (forall c c2 cs, Q cs -> Q (c2 :: cs) -> Q (c :: c2 :: cs)) ->
  forall l, Q l.
Proof.
  intros H0 H1 H2 l. assert (H : Q l /\ forall c, Q (c :: l)); [|exact (proj1 H)].
  induction l as [|x l [IHa IHb]].
  - split; [exact H0|exact H1].
  - split; [exact (IHb x)|]. intros c. apply H2; [exact IHa|exact (IHb x)].
Qed.

Lemma Forall_skipn (A : Type) (P : A -> Prop) k : forall l, Forall P l -> Forall P (skipn k l).
Proof.
  induction k as [|k IH]; intros l H; [exact H|]. destruct l as [|x l]; [constructor|].
  cbn [skipn]. inversion H; subst. apply IH. assumption.
Qed.

Lemma skipn_length_le (A : Type) k : forall l : list A, (length (skipn k l) <= length l)%nat.
Proof. intros l. rewrite skipn_length. lia. Qed.

(* the part of a value before its first ';' *)
Fixpoint before_semicolon (v : list N) : list N :=
  match v with
  | [] => []
  | c :: r => if c =? 59 then [] else c :: before_semicolon r
  end.

(* everything the proofs need to know about a run of the scanner on arbitrary input: the value
   extends acc by some w, the pieces handed back are a suffix of the pieces it was given, w is made
   of code points of the input (plus ';' and '\'), and up to its first ';' w is made of code points
   of the piece the scan started in *)
Definition scan_facts (pieces : list (list N)) (chars acc : list N) : Prop :=
  exists w k,
    scan_quoted pieces chars acc = (rev acc ++ w, skipn k pieces)
    /\ (forall P : N -> Prop, P 59 -> P 92 -> Forall (Forall P) pieces -> Forall P chars -> Forall P w)
    /\ (forall Q : N -> Prop, Q 92 -> Forall Q chars -> Forall Q (before_semicolon w)).

(* one step of the scanner that pushes x and goes on with chars', both taken from chars *)
Lemma scan_facts_push pieces chars chars' acc x :
  scan_quoted pieces chars acc = scan_quoted pieces chars' (x :: acc) ->
  (forall P : N -> Prop, Forall P chars -> P x /\ Forall P chars') ->
  scan_facts pieces chars' (x :: acc) -> scan_facts pieces chars acc.
Proof.
  intros E Hsub (w & k & E' & HP & HQ). exists (x :: w), k. split; [|split].
  - rewrite E, E'. cbn [rev]. rewrite <- app_assoc. reflexivity.
  - intros P P59 P92 Hp Hc. destruct (Hsub P Hc) as [Hx Hc']. constructor; [exact Hx | apply HP; assumption].
  - intros Q Q92 Hc. destruct (Hsub Q Hc) as [Hx Hc']. cbn [before_semicolon].
    destruct (x =? 59); constructor; [exact Hx | apply HQ; assumption].
Qed.

(* the piece is exhausted: a ';' is pushed and the scan goes on in the next piece *)
Lemma scan_facts_next piece rest acc :
  scan_facts rest piece (59 :: acc) -> scan_facts (piece :: rest) [] acc.
Proof.
  intros (w & k & E & HP & _). exists (59 :: w), (S k). cbn [skipn]. split; [|split].
  - rewrite scan_nil, E. cbn [rev]. rewrite <- app_assoc. reflexivity.
  - intros P P59 P92 Hp _. inversion Hp; subst. constructor; [exact P59 | apply HP; assumption].
  - intros Q _ _. cbn [before_semicolon]. change (59 =? 59) with true. constructor.
Qed.

(* within one piece: the two ways the characters can run out decide the rest *)
Lemma scan_chars_facts pieces :
  (forall acc, scan_facts pieces [] acc) -> (forall acc, scan_facts pieces [92] acc) ->
  forall chars acc, scan_facts pieces chars acc.
Proof.
  intros Hend Hend92 chars.
  assert (Hquote : forall cs acc, scan_facts pieces (34 :: cs) acc).
  { intros cs acc. exists [], 0%nat. rewrite scan_cons, app_nil_r. repeat split; constructor. }
  induction chars as [|c|c c2 cs IH1 IH2] using list_ind_2step; intros acc; [apply Hend | |];
    (destruct (N.eqb_spec c 34) as [->|N34]; [apply Hquote|]);
    destruct (N.eqb_spec c 92) as [->|N92].
  - apply Hend92.
  - apply (scan_facts_push pieces [c] [] acc c); [|intros P H; inversion H; auto | apply Hend].
    rewrite scan_cons. replace (c =? 34) with false by lia. replace (c =? 92) with false by lia. reflexivity.
  - apply (scan_facts_push pieces (92 :: c2 :: cs) cs acc c2); [rewrite scan_cons; reflexivity | | apply IH1].
    intros P H. inversion H as [|? ? _ H']; subst. inversion H'; auto.
  - apply (scan_facts_push pieces (c :: c2 :: cs) (c2 :: cs) acc c); [|intros P H; inversion H; auto | apply IH2].
    rewrite scan_cons. replace (c =? 34) with false by lia. replace (c =? 92) with false by lia. reflexivity.
Qed.

Lemma scan_quoted_facts pieces : forall chars acc, scan_facts pieces chars acc.
Proof.
  induction pieces as [|piece rest IHp]; apply scan_chars_facts; intros acc.
  - exists [], 0%nat. rewrite scan_nil, app_nil_r. repeat split; constructor.
  - exists [92], 0%nat. split; [reflexivity|]. split.
    + intros P _ P92 _ _. repeat constructor. exact P92.
    + intros Q Q92 _. repeat constructor. exact Q92.
  - apply scan_facts_next, IHp.
  - (* a '\\' as last character of a piece escapes the ';': the same result as running out of characters *)
    destruct (scan_facts_next piece rest acc (IHp piece (59 :: acc))) as (w & k & E & HP & HQ).
    exists w, k. split; [exact E|]. split; [intros P P59 P92 Hp _ | intros Q Q92 _]; auto.
Qed.

Lemma scan_quoted_rest_Forall (P : list N -> Prop) pieces chars acc :
  Forall P pieces -> Forall P (snd (scan_quoted pieces chars acc)).
Proof.
  intros H. destruct (scan_quoted_facts pieces chars acc) as [w [k [E _]]]. rewrite E. cbn [snd].
  apply Forall_skipn. exact H.
Qed.

Lemma scan_quoted_rest_length pieces chars acc :
  (length (snd (scan_quoted pieces chars acc)) <= length pieces)%nat.
Proof.
  destruct (scan_quoted_facts pieces chars acc) as [w [k [E _]]]. rewrite E. cbn [snd]. apply skipn_length_le.
Qed.

(* pure versions of the functions that go through split2 / the token table *)
Definition p_name_valid (parameters : plist) (name : list N) : bool :=
  negb (is_empty name) && tokens name && negb (contains parameters name).

Lemma name_valid_spec parameters name :
  usv_list name -> name_valid parameters name = Ok (p_name_valid parameters name).
Proof.
  intros H. unfold name_valid, p_name_valid. destruct (is_empty name); [reflexivity|].
  rewrite (only_tok_spec name H). cbn [bind negb andb]. destruct (tokens name); reflexivity.
Qed.

Fixpoint p_params_loop (fuel : nat) (pieces : list (list N)) (parameters : plist) : outcome plist :=
  match fuel with
  | O => OutOfFuel
  | S fuel' =>
    match pieces with
    | [] => Ok parameters
    | piece :: rest =>
      let (name, value) := split_once 61 (trim_start piece) in
      let name_ok := p_name_valid parameters name in
      match value with
      | None => p_params_loop fuel' rest parameters
      | Some value =>
        match strip_prefix_quote value with
        | Some stripped =>
            let (unescaped_value, rest') := scan_quoted rest stripped [] in
            if negb name_ok || negb (valid_value value) then p_params_loop fuel' rest' parameters
            else p_params_loop fuel' rest' (parameters ++ [(to_ascii_lowercase name, unescaped_value)])
        | None =>
            let value := trim_end value in
            if is_empty value then p_params_loop fuel' rest parameters
            else if negb name_ok || negb (valid_value value) then p_params_loop fuel' rest parameters
            else p_params_loop fuel' rest (parameters ++ [(to_ascii_lowercase name, value)])
        end
      end
    end
  end.

Lemma usv_59 : is_usv 59. Proof. unfold is_usv. lia. Qed.
Lemma usv_92 : is_usv 92. Proof. unfold is_usv. lia. Qed.

Lemma params_loop_spec fuel : forall pieces parameters,
  Forall usv_list pieces -> params_loop fuel pieces parameters = p_params_loop fuel pieces parameters.
Proof.
  induction fuel as [|fuel IH]; intros pieces parameters Hp; [reflexivity|].
  cbn [params_loop p_params_loop]. destruct pieces as [|piece rest]; [reflexivity|].
  inversion Hp as [|? ? Hpiece Hrest]; subst.
  rewrite split2_spec. cbn [bind].
  pose proof (split_once_Forall is_usv 61 (trim_start piece) (trim_start_Forall is_usv piece Hpiece)) as [Hn Hv].
  destruct (split_once 61 (trim_start piece)) as [name value]. cbn [fst snd] in Hn, Hv.
  rewrite (name_valid_spec parameters name Hn). cbn [bind].
  destruct value as [value|]; [|exact (IH rest parameters Hrest)].
  destruct (strip_prefix_quote value) as [stripped|] eqn:Es.
  - assert (Hst : usv_list stripped).
    { unfold strip_prefix_quote in Es. destruct value as [|c r]; [discriminate|].
      destruct (c =? 34); [|discriminate]. inversion Es; subst. inversion Hv; assumption. }
    pose proof (scan_quoted_rest_Forall usv_list rest stripped [] Hrest) as Hr'.
    destruct (scan_quoted rest stripped []) as [u rest']. cbn [snd] in Hr'.
    destruct (negb (p_name_valid parameters name) || negb (valid_value value)); apply IH; exact Hr'.
  - destruct (is_empty (trim_end value)); [exact (IH rest parameters Hrest)|].
    destruct (negb (p_name_valid parameters name) || negb (valid_value (trim_end value))); apply IH; exact Hrest.
Qed.

Definition p_parse_parameters (s : list N) (parameters : plist) : outcome plist :=
  let (p, ps) := split_all 59 s in
  p_params_loop (S (S (length ps))) (p :: ps) parameters.

Lemma parse_parameters_spec s parameters :
  usv_list s -> parse_parameters s parameters = p_parse_parameters s parameters.
Proof.
  intros H. unfold parse_parameters, p_parse_parameters.
  pose proof (split_all_Forall is_usv 59 s H) as [Hp Hps].
  destruct (split_all 59 s) as [p ps]. cbn [fst snd] in Hp, Hps.
  apply params_loop_spec. constructor; assumption.
Qed.

Definition p_parse (s : list N) : outcome (option mime) :=
  let trimmed := trim_matches s in
  let (type_, rest) := split_once 47 trimmed in
  if negb (tokens type_ && negb (is_empty type_)) then Ok None else
  match rest with
  | None => Ok None
  | Some rest =>
    let (subtype, rest) := split_once 59 rest in
    let subtype := trim_end subtype in
    if negb (tokens subtype && negb (is_empty subtype)) then Ok None else
    bind (match rest with
          | Some rest => p_parse_parameters rest []
          | None => Ok []
          end) (fun parameters =>
    Ok (Some (mk_mime (to_ascii_lowercase type_) (to_ascii_lowercase subtype) parameters)))
  end.

Lemma parse_spec s : usv_list s -> parse s = p_parse s.
Proof.
  intros H. unfold parse, p_parse.
  assert (Ht : usv_list (trim_matches s)).
  { unfold trim_matches. apply trim_end_Forall. apply trim_start_Forall. exact H. }
  rewrite split2_spec. cbn [bind].
  pose proof (split_once_Forall is_usv 47 _ Ht) as [Hty Hrest].
  destruct (split_once 47 (trim_matches s)) as [type_ rest]. cbn [fst snd] in Hty, Hrest.
  rewrite (only_tok_spec type_ Hty). cbn [bind].
  destruct (negb (tokens type_ && negb (is_empty type_))); [reflexivity|].
  destruct rest as [rest|]; [|reflexivity].
  rewrite split2_spec. cbn [bind].
  pose proof (split_once_Forall is_usv 59 _ Hrest) as [Hsub Hrest2].
  destruct (split_once 59 rest) as [subtype rest2]. cbn [fst snd] in Hsub, Hrest2.
  rewrite (only_tok_spec (trim_end subtype) (trim_end_Forall is_usv subtype Hsub)). cbn [bind].
  destruct (negb (tokens (trim_end subtype) && negb (is_empty (trim_end subtype)))); [reflexivity|].
  destruct rest2 as [rest2|]; [|reflexivity].
  rewrite (parse_parameters_spec rest2 [] Hrest2). reflexivity.
Qed.

Definition p_display_value (value : list N) : list N :=
  if tokens value && negb (is_empty value) then value else 34 :: escape_value value ++ [34].

Definition ser_param (p : list N * list N) : list N := fst p ++ 61 :: p_display_value (snd p).
Definition tail_str (ps : plist) : list N := flat_map (fun p => 59 :: ser_param p) ps.
Definition p_display (m : mime) : list N := m_type m ++ 47 :: m_subtype m ++ tail_str (m_params m).

Definition usv_params (ps : plist) : Prop := Forall (fun p => usv_list (fst p) /\ usv_list (snd p)) ps.
Definition usv_mime (m : mime) : Prop :=
  usv_list (m_type m) /\ usv_list (m_subtype m) /\ usv_params (m_params m).

Lemma display_value_spec v : usv_list v -> display_value v = Ok (p_display_value v).
Proof.
  intros H. unfold display_value, p_display_value. rewrite (only_tok_spec v H). cbn [bind].
  destruct (tokens v && negb (is_empty v)); reflexivity.
Qed.

Lemma display_params_spec ps : usv_params ps -> display_params ps = Ok (tail_str ps).
Proof.
  unfold usv_params. induction ps as [|[n v] ps IH]; intros H; [reflexivity|].
  inversion H as [|? ? [_ Hv] Hps]; subst. cbn [snd] in Hv. cbn [display_params].
  rewrite (display_value_spec v Hv). cbn [bind]. rewrite (IH Hps). cbn [bind].
  unfold tail_str. cbn [flat_map app]. unfold ser_param. cbn [fst snd]. rewrite <- app_assoc. reflexivity.
Qed.

Lemma display_spec m : usv_mime m -> display m = Ok (p_display m).
Proof.
  intros [_ [_ Hp]]. unfold display, p_display. rewrite (display_params_spec _ Hp). reflexivity.
Qed.

Lemma p_params_loop_fuel fuel : forall pieces parameters,
  (length pieces < fuel)%nat -> exists r, p_params_loop fuel pieces parameters = Ok r.
Proof.
  induction fuel as [|fuel IH]; intros pieces parameters Hlen; [lia|].
  cbn [p_params_loop]. destruct pieces as [|piece rest]; [eexists; reflexivity|].
  cbn [length] in Hlen.
  destruct (split_once 61 (trim_start piece)) as [name value].
  destruct value as [value|]; [|apply IH; lia].
  destruct (strip_prefix_quote value) as [stripped|].
  - pose proof (scan_quoted_rest_length rest stripped []) as Hl.
    destruct (scan_quoted rest stripped []) as [u rest']. cbn [snd] in Hl.
    destruct (negb (p_name_valid parameters name) || negb (valid_value value)); apply IH; lia.
  - destruct (is_empty (trim_end value)); [apply IH; lia|].
    destruct (negb (p_name_valid parameters name) || negb (valid_value (trim_end value))); apply IH; lia.
Qed.

Lemma p_parse_parameters_total s parameters : exists r, p_parse_parameters s parameters = Ok r.
Proof.
  unfold p_parse_parameters. destruct (split_all 59 s) as [p ps]. apply p_params_loop_fuel. cbn [length]. lia.
Qed.

Lemma p_parse_total s : exists r, p_parse s = Ok r.
Proof.
  unfold p_parse. destruct (split_once 47 (trim_matches s)) as [type_ rest].
  destruct (negb (tokens type_ && negb (is_empty type_))); [eexists; reflexivity|].
  destruct rest as [rest|]; [|eexists; reflexivity].
  destruct (split_once 59 rest) as [subtype rest2].
  destruct (negb (tokens (trim_end subtype) && negb (is_empty (trim_end subtype)))); [eexists; reflexivity|].
  destruct rest2 as [rest2|].
  - destruct (p_parse_parameters_total rest2 []) as [r Hr]. rewrite Hr. cbn [bind]. eexists; reflexivity.
  - cbn [bind]. eexists; reflexivity.
Qed.

(* parsing a &str never panics and never runs out of fuel *)
Theorem parse_total s : usv_list s -> exists r, parse s = Ok r.
Proof. intros H. rewrite (parse_spec s H). apply p_parse_total. Qed.

Theorem display_total m : usv_mime m -> exists d, display m = Ok d.
Proof. intros H. rewrite (display_spec m H). eexists; reflexivity. Qed.
