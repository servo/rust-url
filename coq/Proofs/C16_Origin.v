(* Proofs/C16_Origin.v - url_origin: the scheme dispatch, tuple equality, the blob recursion and its
   fuel, opaque kinds, sequences of creations on one thread, the shape of the serializations. *)
From RU Require Import Base.Prelude Gen.Tables Model.HostT Model.UrlRecord Model.Parser Model.Origin
  Proofs.C16_Conc.

(* derived PartialEq is structural equality *)
Lemma host_eqb_spec a b : host_eqb a b = true <-> a = b.
Proof.
  destruct a as [x|x|x], b as [y|y|y]; cbn [host_eqb]; try (split; [discriminate|intros H; discriminate H]).
  - rewrite list_eqb_spec. split; [intros ->; reflexivity|intros H; now inversion H].
  - rewrite N.eqb_eq. split; [intros ->; reflexivity|intros H; now inversion H].
  - rewrite list_eqb_spec. split; [intros ->; reflexivity|intros H; now inversion H].
Qed.

Lemma origin_eqb_spec a b : origin_eqb a b = true <-> a = b.
Proof.
  destruct a as [x|s1 h1 p1], b as [y|s2 h2 p2]; cbn [origin_eqb]; try (split; [discriminate|intros H; discriminate H]).
  - rewrite N.eqb_eq. split; [intros ->; reflexivity|intros H; now inversion H].
  - rewrite !andb_true_iff, list_eqb_spec, host_eqb_spec, N.eqb_eq.
    split; [intros [[-> ->] ->]; reflexivity|intros H; now inversion H].
Qed.

Lemma origin_eqb_refl a : origin_eqb a a = true.
Proof. now apply origin_eqb_spec. Qed.

Lemma list_eqb_false a b : list_eqb a b = false <-> a <> b.
Proof. rewrite <- list_eqb_spec. destruct (list_eqb a b); split; congruence. Qed.

Lemma str_mem_spec s l : str_mem s l = true <-> In s l.
Proof.
  induction l as [|x r IH]; cbn [str_mem In].
  - split; [discriminate|tauto].
  - rewrite orb_true_iff, IH, list_eqb_spec. split; intros [H|H]; auto.
Qed.

(* the scheme lists of the dispatch in url_origin are data of Gen/Tables.v, generated from url/src/origin.rs
   (T_ORIGIN_TUPLE_SCHEMES, T_ORIGIN_BLOB_SCHEMES), as is the operation on COUNTER (T_COUNTER_OP).  They are
   compared here with what property C16 names: ftp, http, https, ws, wss for the tuple arm, blob for the
   recursing arm, fetch_add for the counter.  Stated as C16_dispatch_tables and C16_model_uses_fetch_add in
   Properties/C16.v *)
Definition five_schemes : list (list N) := [s_ftp; s_http; s_https; s_ws; s_wss].

Definition same_members (a b : list (list N)) : bool :=
  forallb (fun s => str_mem s b) a && forallb (fun s => str_mem s a) b.

Lemma same_members_spec a b : same_members a b = true -> forall s, str_mem s a = str_mem s b.
Proof.
  unfold same_members. rewrite andb_true_iff, !forallb_forall. intros [H1 H2] s.
  destruct (str_mem s a) eqn:Ea, (str_mem s b) eqn:Eb; try reflexivity.
  - apply str_mem_spec in Ea. apply H1 in Ea. congruence.
  - apply str_mem_spec in Eb. apply H2 in Eb. congruence.
Qed.

Lemma tuple_table_ok : same_members T_ORIGIN_TUPLE_SCHEMES five_schemes = true.
Proof. vm_compute. reflexivity. Qed.
Lemma blob_table_ok : same_members T_ORIGIN_BLOB_SCHEMES [s_blob] = true.
Proof. vm_compute. reflexivity. Qed.
Lemma counter_table_ok : the_counter_op = FetchAdd.
Proof. vm_compute. reflexivity. Qed.

Lemma tuple_table s : str_mem s T_ORIGIN_TUPLE_SCHEMES = str_mem s five_schemes.
Proof. apply same_members_spec. exact tuple_table_ok. Qed.
Lemma blob_table s : str_mem s T_ORIGIN_BLOB_SCHEMES = list_eqb s s_blob.
Proof.
  rewrite (same_members_spec _ _ blob_table_ok s). cbn [str_mem]. now rewrite orb_false_r.
Qed.

Lemma five_not_blob s : In s five_schemes -> list_eqb s s_blob = false.
Proof.
  intros H. cbn [five_schemes In] in H.
  destruct H as [<-|[<-|[<-|[<-|[<-|[]]]]]]; vm_compute; reflexivity.
Qed.

Lemma five_default_port s : In s five_schemes -> exists p, default_port s = Some p.
Proof.
  intros H. cbn [five_schemes In] in H.
  destruct H as [<-|[<-|[<-|[<-|[<-|[]]]]]]; vm_compute; eauto.
Qed.

Lemma file_not_special_origin : str_mem s_file five_schemes = false /\ list_eqb s_file s_blob = false.
Proof. split; vm_compute; reflexivity. Qed.

Lemma new_opaque_fetch_add c : c + 1 < USIZE_MOD -> new_opaque c = OOk (Opaque c) (c + 1).
Proof.
  intros H. unfold new_opaque. rewrite (solo_run the_counter_op c H). reflexivity.
Qed.

Lemma new_opaque_kind c o c' : new_opaque c = OOk o c' -> is_tuple o = false.
Proof.
  unfold new_opaque. destruct (run _ _ _) as [cfg ids]. destruct ids as [|[t id] r]; [discriminate|].
  intros H. inversion H. reflexivity.
Qed.

Lemma new_opaque_not_fuel c : new_opaque c <> OFuel.
Proof.
  unfold new_opaque. destruct (run _ _ _) as [cfg ids]. destruct ids as [|[t id] r]; discriminate.
Qed.

(* the number of ':' (code 58) in a text: the measure of the blob recursion *)
Fixpoint count58 (l : list N) : nat :=
  match l with [] => O | x :: r => (if x =? 58 then 1 else 0) + count58 r end.

Lemma count58_le_length l : (count58 l <= length l)%nat.
Proof. induction l as [|x r IH]; cbn [count58 length]; [lia|]. destruct (x =? 58); lia. Qed.

Lemma count58_firstn n l : (count58 (firstn n l) <= count58 l)%nat.
Proof.
  revert l. induction n as [|n IH]; intros [|x r]; cbn [firstn count58]; try lia.
  specialize (IH r). destruct (x =? 58); lia.
Qed.
Lemma count58_skipn n l : (count58 (skipn n l) <= count58 l)%nat.
Proof.
  revert l. induction n as [|n IH]; intros [|x r]; cbn [skipn count58]; try lia.
  specialize (IH r). destruct (x =? 58); lia.
Qed.

Section OriginFacts.
Variable dbg : bool.
Variable host_parse : list N -> result host.
Variable host_parse_opaque : list N -> result host.
Variable host_display : host -> list N.

Notation uparse := (url_parse dbg host_parse host_parse_opaque host_display).
Notation uof := (url_origin_fuel dbg host_parse host_parse_opaque host_display).
Notation uo := (url_origin dbg host_parse host_parse_opaque host_display).

(* one unfolding step, for any fuel *)
Lemma uof_unfold f c u :
  uof f c u =
  match scheme u with
  | None => OPanic
  | Some s =>
      if str_mem s T_ORIGIN_BLOB_SCHEMES then
        match path u with
        | None => OPanic
        | Some p =>
            match uparse p with
            | POk v => match f with O => OFuel | S f' => uof f' c v end
            | PErr _ => new_opaque c
            | PPanic => OPanic
            end
        end
      else if str_mem s T_ORIGIN_TUPLE_SCHEMES then
        match host_of u with
        | Some (Some h) =>
            match port_or_known_default u with
            | Some (Some p) => OOk (Tuple s h p) c
            | _ => OPanic
            end
        | _ => OPanic
        end
      else new_opaque c
  end.
Proof. destruct f; reflexivity. Qed.

(* non-blob URLs: no recursion, the result does not depend on the fuel *)
Lemma uof_not_blob f c u s :
  scheme u = Some s -> list_eqb s s_blob = false ->
  uof f c u =
  if str_mem s five_schemes then
    match host_of u with
    | Some (Some h) =>
        match port_or_known_default u with
        | Some (Some p) => OOk (Tuple s h p) c
        | _ => OPanic
        end
    | _ => OPanic
    end
  else new_opaque c.
Proof.
  intros Hs Hb. rewrite uof_unfold, Hs, blob_table, Hb, tuple_table. reflexivity.
Qed.

(* the tuple arm: with a host present neither unwrap() can fail *)
Lemma tuple_arm f c u s h :
  scheme u = Some s -> In s five_schemes -> host_of u = Some (Some h) ->
  exists p, port_or_known_default u = Some (Some p) /\ uof f c u = OOk (Tuple s h p) c.
Proof.
  intros Hs H5 Hh.
  assert (Hp : exists p, port_or_known_default u = Some (Some p)).
  { unfold port_or_known_default. destruct (port u) as [p|]; [eauto|].
    rewrite Hs. cbn [bindo]. destruct (five_default_port s H5) as [p Hp]. rewrite Hp. eauto. }
  destruct Hp as [p Hp]. exists p. split; [exact Hp|].
  rewrite (uof_not_blob f c u s Hs (five_not_blob s H5)).
  apply str_mem_spec in H5. rewrite H5, Hh, Hp. reflexivity.
Qed.

(* ... and without a host url.host().unwrap() panics *)
Lemma tuple_arm_no_host f c u s :
  scheme u = Some s -> In s five_schemes -> host_of u = Some None -> uof f c u = OPanic.
Proof.
  intros Hs H5 Hh. rewrite (uof_not_blob f c u s Hs (five_not_blob s H5)).
  apply str_mem_spec in H5. rewrite H5, Hh. reflexivity.
Qed.

(* a result of a non-blob URL: for the five schemes the tuple of scheme, host and effective port, the counter
   untouched; for every other scheme what new_opaque returns *)
Lemma not_blob_result f c u s o c' :
  scheme u = Some s -> s <> s_blob -> uof f c u = OOk o c' ->
  (In s five_schemes /\ exists h p, host_of u = Some (Some h) /\ port_or_known_default u = Some (Some p)
                                    /\ o = Tuple s h p /\ c' = c)
  \/ (~ In s five_schemes /\ new_opaque c = OOk o c').
Proof.
  intros Hs Hnb H. rewrite (uof_not_blob f c u s Hs (proj2 (list_eqb_false s s_blob) Hnb)) in H.
  rewrite <- str_mem_spec. destruct (str_mem s five_schemes).
  - left. split; [reflexivity|].
    destruct (host_of u) as [[h|]|]; try discriminate.
    destruct (port_or_known_default u) as [[p|]|]; try discriminate.
    inversion H; subst. exists h, p. auto.
  - right. split; [discriminate|exact H].
Qed.

(* the origin of a non-blob URL is a tuple exactly for the five schemes *)
Lemma kind_by_scheme f c u s o c' :
  scheme u = Some s -> s <> s_blob -> uof f c u = OOk o c' ->
  (is_tuple o = true <-> In s five_schemes).
Proof.
  intros Hs Hnb H. destruct (not_blob_result f c u s o c' Hs Hnb H) as [[H5 (h & p & _ & _ & -> & _)]|[H5 Hn]].
  - cbn [is_tuple]. tauto.
  - apply new_opaque_kind in Hn. rewrite Hn. split; [discriminate|contradiction].
Qed.

(* what a tuple origin of a non-blob URL consists of *)
Lemma tuple_fields f c u s o c' :
  scheme u = Some s -> s <> s_blob -> uof f c u = OOk o c' -> is_tuple o = true ->
  exists h p, host_of u = Some (Some h) /\ port_or_known_default u = Some (Some p)
              /\ o = Tuple s h p /\ c' = c.
Proof.
  intros Hs Hnb H Ht. destruct (not_blob_result f c u s o c' Hs Hnb H) as [[_ R]|[_ Hn]]; [exact R|].
  apply new_opaque_kind in Hn. congruence.
Qed.

Definition not_blob (u : url) : Prop := scheme u <> Some s_blob.

(* two tuple origins of non-blob URLs are equal exactly when scheme, host and effective port agree;
   stated as C16_tuple in Properties/C16.v *)
Lemma tuple_equality f1 f2 c1 c2 u v o1 o2 c1' c2' :
  not_blob u -> not_blob v ->
  uof f1 c1 u = OOk o1 c1' -> uof f2 c2 v = OOk o2 c2' ->
  is_tuple o1 = true -> is_tuple o2 = true ->
  ((o1 = o2 <-> (scheme u = scheme v /\ host_of u = host_of v
                 /\ port_or_known_default u = port_or_known_default v))
   /\ (origin_eqb o1 o2 = true <-> o1 = o2)).
Proof.
  intros Hu Hv H1 H2 T1 T2. split; [|apply origin_eqb_spec].
  destruct (scheme u) as [s1|] eqn:Es1; [|rewrite uof_unfold, Es1 in H1; discriminate].
  destruct (scheme v) as [s2|] eqn:Es2; [|rewrite uof_unfold, Es2 in H2; discriminate].
  assert (N1 : s1 <> s_blob) by (intros ->; apply Hu; rewrite Es1; reflexivity).
  assert (N2 : s2 <> s_blob) by (intros ->; apply Hv; rewrite Es2; reflexivity).
  destruct (tuple_fields f1 c1 u s1 o1 c1' Es1 N1 H1 T1) as (h1 & p1 & Hh1 & Hp1 & -> & _).
  destruct (tuple_fields f2 c2 v s2 o2 c2' Es2 N2 H2 T2) as (h2 & p2 & Hh2 & Hp2 & -> & _).
  rewrite Hh1, Hh2, Hp1, Hp2. split.
  - intros E. inversion E; subst. auto.
  - intros (E1 & E2 & E3). inversion E1; inversion E2; inversion E3; subst. reflexivity.
Qed.

(* a blob URL with fuel left: one step of the recursion, on the parse of the path *)
Lemma blob_step f c u p :
  scheme u = Some s_blob -> path u = Some p ->
  uof (S f) c u =
  match uparse p with
  | POk v => uof f c v
  | PErr _ => new_opaque c
  | PPanic => OPanic
  end.
Proof.
  intros Hs Hp. rewrite uof_unfold, Hs, blob_table, Hp.
  replace (list_eqb s_blob s_blob) with true by (symmetry; now apply list_eqb_spec). reflexivity.
Qed.

(* more fuel never changes a result that was reached *)
Lemma fuel_mono f : forall c u f', uof f c u <> OFuel -> (f <= f')%nat -> uof f' c u = uof f c u.
Proof.
  induction f as [|f IH]; intros c u f' Hn Hle; rewrite uof_unfold in Hn; rewrite (uof_unfold f'), uof_unfold;
    (destruct (scheme u) as [s|]; [|reflexivity]);
    (destruct (str_mem s T_ORIGIN_BLOB_SCHEMES); [|reflexivity]);
    (destruct (path u) as [p|]; [|reflexivity]);
    (destruct (uparse p) as [v|e|]; try reflexivity).
  - contradiction.
  - destruct f' as [|f']; [lia|]. apply IH; [exact Hn|lia].
Qed.

Lemma fuel_irrelevant f f' c u :
  uof f c u <> OFuel -> uof f' c u <> OFuel -> uof f c u = uof f' c u.
Proof.
  intros H1 H2. destruct (Nat.le_ge_cases f f') as [L|L].
  - symmetry. now apply fuel_mono.
  - now apply fuel_mono.
Qed.

(* the origin of a blob URL is the origin of the URL its path parses to (if neither computation runs out of
   fuel), what new_opaque returns if the path does not parse, a panic if the parser panics.
   Proved as blob_origin below, stated as C16_blob in Properties/C16.v *)
Definition blob_stmt : Prop :=
  forall c u p, scheme u = Some s_blob -> path u = Some p ->
    match uparse p with
    | POk v => uo c u <> OFuel -> uo c v <> OFuel -> uo c u = uo c v
    | PErr _ => uo c u = new_opaque c
    | PPanic => uo c u = OPanic
    end.

Lemma blob_origin : blob_stmt.
Proof.
  intros c u p Hs Hp. unfold url_origin.
  destruct (origin_fuel u) as [|f] eqn:Ef.
  - rewrite uof_unfold, Hs, blob_table, Hp.
    replace (list_eqb s_blob s_blob) with true by (symmetry; now apply list_eqb_spec).
    destruct (uparse p) as [v|e|]; try reflexivity. intros H. contradiction.
  - rewrite (blob_step f c u p Hs Hp).
    destruct (uparse p) as [v|e|]; try reflexivity.
    intros H1 H2. now apply fuel_irrelevant.
Qed.

(* which URLs get an opaque origin; proved as opaque_kinds below, stated as C16_opaque_kinds in
   Properties/C16.v *)
Definition opaque_kinds_stmt : Prop :=
  forall c u s, scheme u = Some s ->
    (* file, and every scheme that is neither blob nor one of the five *)
    ((s = s_file \/ (s <> s_blob /\ ~ In s five_schemes)) -> uo c u = new_opaque c)
    (* a blob URL whose path does not parse *)
    /\ (s = s_blob -> forall p e, path u = Some p -> uparse p = PErr e -> uo c u = new_opaque c)
    (* and what new_opaque hands out (the operation on COUNTER is fetch_add: counter_table_ok) *)
    /\ (c + 1 < USIZE_MOD -> new_opaque c = OOk (Opaque c) (c + 1))
    (* an opaque origin equals only itself *)
    /\ (forall i o, origin_eqb (Opaque i) o = true <-> o = Opaque i).

Lemma opaque_kinds : opaque_kinds_stmt.
Proof.
  intros c u s Hs. split; [|split; [|split]].
  - intros H. unfold url_origin.
    assert (Hb : list_eqb s s_blob = false /\ str_mem s five_schemes = false).
    { destruct H as [->|[Hnb Hn5]]; [split; apply file_not_special_origin|].
      split; [exact (proj2 (list_eqb_false s s_blob) Hnb)|].
      destruct (str_mem s five_schemes) eqn:E; [|reflexivity]. apply str_mem_spec in E. contradiction. }
    destruct Hb as [Hb H5]. rewrite (uof_not_blob _ c u s Hs Hb), H5. reflexivity.
  - intros -> p e Hp He. pose proof (blob_origin c u p Hs Hp) as H. rewrite He in H. exact H.
  - apply new_opaque_fetch_add.
  - intros i o. rewrite origin_eqb_spec. split; intros H; congruence.
Qed.

(* the fuel: origin_fuel u exceeds the number of ':' in the path of a blob URL u *)
Lemma path_count58 u p : path u = Some p -> (count58 p <= count58 (ser u))%nat.
Proof.
  unfold path, u_slice_from, u_slice, slice_from_o, slice_o, nfirstn, nskipn. intros H.
  destruct (query_start u) as [q|], (fragment_start u) as [fr|];
    match type of H with
    | (if ?b then _ else _) = _ => destruct b; [|discriminate]
    end; inversion H; subst;
    try (etransitivity; [apply count58_firstn|]); apply count58_skipn.
Qed.

Lemma blob_scheme_count58 u : scheme u = Some s_blob -> (count58 (ser u) < length (ser u))%nat.
Proof.
  unfold scheme, u_slice_to, slice_to_o, nfirstn. intros H.
  destruct (scheme_end u <=? nlen (ser u)); [|discriminate]. inversion H as [H1].
  destruct (ser u) as [|x r]; [destruct (N.to_nat (scheme_end u)); discriminate|].
  destruct (N.to_nat (scheme_end u)); [discriminate|]. cbn [firstn] in H1. inversion H1; subst.
  cbn [count58 length]. replace (98 =? 58) with false by reflexivity.
  pose proof (count58_le_length r). lia.
Qed.

(* the fact about the parser on which termination of the blob recursion rests: every level of
   nesting consumes the ':' of one "blob:" prefix, and parsing a text into a URL of scheme blob adds no
   ':' to the path (for scheme file it can: colons_file_witness in Proofs/C16_Colons.v) *)
Definition blob_path_shrinks : Prop :=
  forall p v p', uparse p = POk v -> scheme v = Some s_blob -> path v = Some p' ->
                 (count58 p' < count58 p)%nat.

(* induction on the fuel.  After uof_unfold only the branch scheme blob / path parses (POk v) calls uof again,
   with one unit of fuel less and, by blob_path_shrinks, a path with fewer ':'; every other branch ends in
   OOk, OPanic or new_opaque, none of which is OFuel *)
Lemma fuel_enough : blob_path_shrinks ->
  forall f c u, (forall p, scheme u = Some s_blob -> path u = Some p -> (count58 p < f)%nat) ->
                uof f c u <> OFuel.
Proof.
  intros HS. induction f as [|f IH]; intros c u Hf; rewrite uof_unfold;
    (destruct (scheme u) as [s|] eqn:Es; [|discriminate]); rewrite blob_table;
    (destruct (list_eqb s s_blob) eqn:Eb;
     [|destruct (str_mem s T_ORIGIN_TUPLE_SCHEMES); [|apply new_opaque_not_fuel];
       destruct (host_of u) as [[h|]|]; try discriminate;
       destruct (port_or_known_default u) as [[p|]|]; discriminate]);
    apply list_eqb_spec in Eb; subst s;
    (destruct (path u) as [p|] eqn:Ep; [|discriminate]); specialize (Hf p eq_refl eq_refl).
  - lia.
  - destruct (uparse p) as [v|e|] eqn:Ev; [|apply new_opaque_not_fuel|discriminate].
    apply IH. intros p' Hsv Hpv. pose proof (HS p v p' Ev Hsv Hpv). lia.
Qed.

Definition fuel_stmt : Prop := forall c u, uo c u <> OFuel.

Lemma fuel_never_out : blob_path_shrinks -> fuel_stmt.
Proof.
  intros HS c u. unfold url_origin, origin_fuel. apply fuel_enough; [exact HS|].
  intros p Hs Hp. pose proof (path_count58 u p Hp). pose proof (blob_scheme_count58 u Hs). lia.
Qed.

(* a sequence of creations on one thread.
   Every call either leaves the counter alone (tuple) or hands out its value and increments it: the same
   case analysis of uof_unfold as in fuel_enough; the tuple arm returns the counter as it is, the new_opaque
   arms are new_opaque_fetch_add, and the recursing arm is the induction hypothesis *)
Lemma uof_counter f : forall c u o c', c + 1 < USIZE_MOD -> uof f c u = OOk o c' ->
  (is_tuple o = true /\ c' = c) \/ (o = Opaque c /\ c' = c + 1).
Proof.
  induction f as [|f IH]; intros c u o c' Hc H; rewrite uof_unfold in H;
    (destruct (scheme u) as [s|]; [|discriminate]);
    (destruct (str_mem s T_ORIGIN_BLOB_SCHEMES);
     [ destruct (path u) as [p|]; [|discriminate];
       destruct (uparse p) as [v|e|]; try discriminate
     | destruct (str_mem s T_ORIGIN_TUPLE_SCHEMES);
       [ destruct (host_of u) as [[h|]|]; try discriminate;
         destruct (port_or_known_default u) as [[p|]|]; try discriminate;
         inversion H; subst; left; split; reflexivity
       | ] ]);
    try (rewrite (new_opaque_fetch_add c Hc) in H; inversion H; subst; right; split; reflexivity).
  apply (IH c v o c' Hc H).
Qed.

Fixpoint opaque_ids (rs : list ores) : list N :=
  match rs with
  | [] => []
  | OOk (Opaque i) _ :: r => i :: opaque_ids r
  | _ :: r => opaque_ids r
  end.

Definition sequence_stmt : Prop :=
  forall us c, c + N.of_nat (length us) < USIZE_MOD ->
    let rs := origins_of dbg host_parse host_parse_opaque host_display c us in
    NoDup (opaque_ids rs) /\ Forall (fun i => c <= i) (opaque_ids rs).

Lemma sequence_ids us : forall c, c + N.of_nat (length us) < USIZE_MOD ->
  let rs := origins_of dbg host_parse host_parse_opaque host_display c us in
  NoDup (opaque_ids rs) /\ Forall (fun i => c <= i) (opaque_ids rs).
Proof.
  induction us as [|u r IH]; intros c Hc; cbn [origins_of opaque_ids length] in *.
  - split; constructor.
  - destruct (uo c u) as [o c'| |] eqn:E.
    + unfold url_origin in E. destruct (uof_counter _ c u o c' ltac:(lia) E) as [[Ht ->]|[-> ->]].
      * destruct o as [i|s h p]; [discriminate|]. cbn [opaque_ids]. apply IH. lia.
      * cbn [opaque_ids]. destruct (IH (c + 1) ltac:(lia)) as [Hn Hf]. split.
        -- constructor; [|exact Hn]. intros Hin. rewrite Forall_forall in Hf. specialize (Hf c Hin). cbv beta in Hf. lia.
        -- constructor; [lia|]. eapply Forall_impl; [|exact Hf]. cbv beta. intros; lia.
    + cbn [opaque_ids]. apply IH. lia.
    + cbn [opaque_ids]. apply IH. lia.
Qed.

End OriginFacts.

Section Serializations.
Variable host_display : host -> list N.
Variable to_unicode : list N -> list N.

Definition serialization_shape_stmt : Prop :=
  forall s h p,
    ascii_serialization host_display (Tuple s h p)
    = s ++ s_css ++ host_fmt host_display h ++ (if opt_eqb (default_port s) (Some p) then [] else 58 :: decimal p)
    /\ unicode_serialization host_display to_unicode (Tuple s h p)
       = s ++ s_css ++ host_fmt host_display (match h with HDomain d => HDomain (to_unicode d) | _ => h end)
           ++ (if opt_eqb (default_port s) (Some p) then [] else 58 :: decimal p)
    (* the default port of the scheme is elided, every other port is written *)
    /\ (default_port s = Some p ->
        ascii_serialization host_display (Tuple s h p) = s ++ s_css ++ host_fmt host_display h)
    /\ (default_port s <> Some p ->
        ascii_serialization host_display (Tuple s h p) = s ++ s_css ++ host_fmt host_display h ++ 58 :: decimal p)
    (* opaque origins serialize to "null" *)
    /\ (forall i, ascii_serialization host_display (Opaque i) = s_null
                  /\ unicode_serialization host_display to_unicode (Opaque i) = s_null).

Lemma opt_eqb_spec a b : opt_eqb a b = true <-> a = b.
Proof.
  destruct a as [x|], b as [y|]; cbn [opt_eqb]; try (split; [discriminate|intros H; discriminate H]).
  - rewrite N.eqb_eq. split; [intros ->; reflexivity|intros H; now inversion H].
  - tauto.
Qed.

Lemma serialization_shape : serialization_shape_stmt.
Proof.
  intros s h p. cbn [ascii_serialization unicode_serialization]. unfold tuple_serialization.
  split; [|split; [|split; [|split]]].
  - destruct (opt_eqb (default_port s) (Some p)); [now rewrite app_nil_r|reflexivity].
  - destruct (opt_eqb (default_port s) (Some p)); [now rewrite app_nil_r|reflexivity].
  - intros H. apply opt_eqb_spec in H. now rewrite H.
  - intros H. destruct (opt_eqb (default_port s) (Some p)) eqn:E; [apply opt_eqb_spec in E; contradiction|reflexivity].
  - intros i. split; reflexivity.
Qed.

End Serializations.
