(* Proofs/C02_FileJoin.v - L1 for joins that involve the file scheme:
     - file-scheme references that do not consult the base (the base is not a file URL, or two slashes follow
       "file:"): parse_url (Some b) input = parse_url None input (join_file_abs_eq);
     - EVERY reference without a scheme or with the file scheme against a canonical file base (join_file_base,
       through parse_file_base): the two-slash arm (file host state), the one-slash arm (the base's host is kept
       unless the reference starts with a drive letter; base_first_segment of a canonical base is no drive letter),
       the empty / query / fragment arms (C02_FileSet.file_tail_arm), the path arm (shorten_path pops the base's last
       segment, the path loop runs from  front "/" seg "/" ... "/" : loop_out_g) and the drive-letter arm (the base is
       ignored).
   Results outside Known_file_drive are FileCanon. *)
From RU Require Import Base.Prelude Model.HostT Model.UrlRecord Model.Parser Proofs.ListN Proofs.C02_Parts
  Proofs.C02_Opaque Proofs.C02_Path Proofs.C02_PathL1 Proofs.C02_Reach Proofs.C02_AuthParts Proofs.C02_Auth
  Proofs.C02_PathSp Proofs.C02_AuthMain Proofs.C02_SetQF Proofs.C02_JoinTail Proofs.C02_JoinPath
  Proofs.C02_Reach7 Proofs.C02_File Proofs.C02_FileL1 Proofs.C02_FileCanon Proofs.C02_FileParse
  Proofs.C02_FileSet.
Open Scope N_scope.
Open Scope list_scope.

(* two slashes (or back-slashes) lead the text behind "file:" *)
Definition two_slashes (rem : list N) : bool :=
  match inp_split_first rem with
  | (Some c, af) => is_slash_or_bslash c
                    && match inp_split_first af with (Some c2, _) => is_slash_or_bslash c2 | _ => false end
  | _ => false
  end.

(* file-scheme references that do not consult the base: the base is not a file URL, or two slashes follow "file:" *)
Definition file_abs_ref (b : url) (input : list N) : bool :=
  match parse_scheme CUrlParser (input_new_trim_c0 input) with
  | Some (sch, rem) =>
      match scheme_type_of sch with
      | STFile => negb (list_eqb (b_scheme b) s_file) || two_slashes rem
      | _ => false
      end
  | None => false
  end.

Lemma file_abs_ref_file b input : file_abs_ref b input = true -> file_input input = true.
Proof.
  unfold file_abs_ref, file_input. destruct (parse_scheme CUrlParser (input_new_trim_c0 input)) as [[sch rem]|]; [|discriminate].
  destruct (scheme_type_of sch); [reflexivity | discriminate | discriminate].
Qed.

Theorem join_file_abs_eq dbg hp hpo hd ovr b input : file_abs_ref b input = true ->
  parse_url dbg hp hpo hd ovr (Some b) input = parse_url dbg hp hpo hd ovr None input.
Proof.
  unfold file_abs_ref, parse_url. destruct (parse_scheme CUrlParser (input_new_trim_c0 input)) as [[sch rem]|]; [|discriminate].
  unfold parse_with_scheme. destruct (to_u32 (nlen sch)) as [se| |]; cbn [pbind]; try reflexivity.
  destruct (scheme_type_of sch); [|discriminate|discriminate].
  destruct (list_eqb (b_scheme b) s_file); cbn [negb orb]; [|reflexivity].
  unfold two_slashes, parse_file. destruct (inp_split_first rem) as [[c|] af]; [|discriminate].
  destruct (is_slash_or_bslash c); cbn [andb]; [|discriminate].
  destruct (inp_split_first af) as [[c2|] an]; [|discriminate].
  intros ->. reflexivity.
Qed.

Lemma shorten_path_pth_f FRONT segs last : no_slash last = true -> is_normalized_wdl last = false ->
  shorten_path STFile (nlen FRONT) (FRONT ++ path_text segs last) = POk (Bs FRONT segs).
Proof.
  intros Hl Hw. rewrite shorten_file_pop.
  - apply pop_path_pth; [exact Hl | rewrite Hw; reflexivity].
  - apply N.eqb_neq. rewrite nlen_app. unfold path_text. rewrite nlen_cons. lia.
  - rewrite nskipn_app_len. unfold path_text. eexists. reflexivity.
Qed.

Lemma like_not_nwdl s : wdl_like s = false -> is_normalized_wdl s = false.
Proof.
  intros H. destruct (is_normalized_wdl s) eqn:E; [|reflexivity].
  unfold is_normalized_wdl in E. apply andb_true_iff in E. destruct E as [E _].
  rewrite (is_wdl_like s E) in H. discriminate H.
Qed.

(* the file path loop from  pre "/" seg "/" ... "/"  and its one-slash entry, as C02_FileParse has them *)
Section LoopOutG.
Variable dbg : bool.
Variable pre : list N.
Notation ps := (nlen pre).

Lemma loop_out_g l segs hh s' hh' rem : usv_list l -> forallb good_seg_sp segs = true ->
  parse_path_loop dbg CUrlParser STFile ps l (Bs pre segs) (nlen (Bs pre segs)) [] hh = POk (s', hh', rem) ->
  usv_list rem /\ (path_good pre hh s' hh' \/ path_drive pre hh s' hh').
Proof. exact (loop_out_segs dbg pre l segs hh s' hh' rem). Qed.

(* one leading slash: the path state sees the slash itself *)
Lemma loop_one_slash_g l : forall c af hh, inp_split_first l = (Some c, af) -> is_slash_or_bslash c = true ->
  parse_path_loop dbg CUrlParser STFile ps l pre ps [] hh
  = parse_path_loop dbg CUrlParser STFile ps af (pre ++ [47]) (nlen (pre ++ [47])) [] hh.
Proof. exact (loop_one_slash dbg pre l). Qed.
End LoopOutG.

(* the accessors parse_file uses on a canonical file base *)
Section BaseAcc.
Variable hd : host -> list N.
Notation file_curl := (file_curl hd).
Notation file_front := (file_front hd).
Notation file_pre := (file_pre hd).

Lemma file_curl_mpath ho T q f : path (file_curl ho T q f) = Some T.
Proof.
  unfold path, file_curl, qf_url, u_slice, u_slice_from. cbn [query_start fragment_start path_start ser].
  unfold C02_File.file_pre. rewrite <- !app_assoc.
  destruct q as [x|]; cbn [qf_qs].
  - rewrite nlen_app. apply slice_mid.
  - destruct f as [y|]; cbn [qf_fs qf_qtext].
    + rewrite nlen_app. replace (nlen (file_front ho) + nlen T + nlen (@nil N)) with (nlen (file_front ho) + nlen T)
        by (unfold nlen; cbn [length]; lia).
      apply slice_mid.
    + rewrite slice_from_o_some by (rewrite nlen_app; lia). rewrite nskipn_app_len.
      unfold qf_text. cbn [qf_qtext qf_ftext app]. rewrite app_nil_r. reflexivity.
Qed.

Lemma file_first_segment ho segs last q f : forallb fseg_ok segs = true -> fseg_ok last = true ->
  exists seg, base_first_segment (file_curl ho (path_text segs last) q f) = Some seg /\ is_normalized_wdl seg = false.
Proof.
  intros Hs Hl. unfold base_first_segment. rewrite file_curl_mpath. unfold path_text, split_on.
  rewrite split_on_aux_segs.
  2:{ apply good_segs_sp_no_slash. apply fsegs_ok_sp. exact Hs. }
  2:{ exact (good_seg_sp_no_slash last (fseg_ok_sp last Hl)). }
  destruct segs as [|s r]; cbn [app].
  - exists last. split; [reflexivity | apply like_not_nwdl; apply fseg_ok_like; exact Hl].
  - cbn [forallb] in Hs. apply andb_true_iff in Hs. destruct Hs as [Hs _].
    exists s. split; [reflexivity | apply like_not_nwdl; apply fseg_ok_like; exact Hs].
Qed.

Lemma file_host_str h T q f : h <> HDomain [] -> host_str (file_curl (Some h) T q f) = Some (Some (hd h)).
Proof.
  intros Hne. unfold host_str.
  assert (has_host (file_curl (Some h) T q f) = true) as ->.
  { unfold has_host, C02_File.file_curl, qf_url. cbn [hosti fhost_hi]. destruct h as [[|c d]|a|pcs]; [contradiction | reflexivity ..]. }
  unfold u_slice, C02_File.file_curl, qf_url. cbn [ser host_start host_end].
  unfold C02_File.file_pre, C02_File.file_front. cbn [fhost_text]. rewrite <- !app_assoc. rewrite nlen_app.
  change 7 with (nlen s_file_css). rewrite slice_mid. reflexivity.
Qed.
End BaseAcc.

Section ParseFileBase.
Variable dbg : bool.
Variable hp hpo : list N -> result host.
Variable hd : host -> list N.
Hypothesis HRT : HostRT hp hpo hd.
Hypothesis HAb : host_above hp hpo hd.
Hypothesis HNE : forall s, hp s <> Ok (HDomain []).
Hypothesis HW : host_no_wdl hp hd.
Variable ovr : option (list N -> list N).

Notation FileCanon := (FileCanon hp hd).
Notation file_curl := (file_curl hd).
Notation file_front := (file_front hd).
Notation file_pre := (file_pre hd).
Notation file_ok := (file_ok hp hd).

Lemma wqf_file ho X rem :
  with_query_and_fragment ovr CUrlParser STFile 4 7 7 (nlen (file_front ho)) (fhost_hi ho) None (nlen (file_front ho))
    (file_front ho ++ X) rem
  = (' (s3, qs, fs) <~ parse_query_and_fragment ovr CUrlParser STFile 4 (file_front ho ++ X) rem ;;
     POk (file_url s3 7 (nlen (file_front ho)) (fhost_hi ho) qs fs)).
Proof.
  unfold with_query_and_fragment.
  replace (nlen (file_front ho) =? 4 + 1) with false by (symmetry; apply N.eqb_neq; rewrite file_front_len; lia).
  destruct (nlen (file_front ho) =? 4 + 3) eqn:E7; cbn [andb]; [|reflexivity].
  apply N.eqb_eq in E7. rewrite E7. change (4 + 3 - 4) with 3.
  unfold C02_File.file_front, s_file_css, s_css. rewrite <- !app_assoc. change 4 with (nlen s_file) at 1.
  rewrite nskipn_app_len. reflexivity.
Qed.

Lemma file_base_triple ho segs last q0 f0 (w : bool) : file_ok ho segs last q0 f0 ->
  exists ho', (ho' = ho \/ ho' = None) /\
    (if w then
       match base_first_segment (file_curl ho (path_text segs last) q0 f0) with
       | Some seg =>
           if is_normalized_wdl seg then (s_file_css ++ [47] ++ seg, 7, HI_None)
           else match host_str (file_curl ho (path_text segs last) q0 f0) with
                | Some (Some hs) => (s_file_css ++ hs, nlen (s_file_css ++ hs), hosti (file_curl ho (path_text segs last) q0 f0))
                | _ => (s_file_css, 7, HI_None)
                end
       | None => (s_file_css, 7, HI_None)
       end
     else (s_file_css, 7, HI_None)) = (file_front ho', nlen (file_front ho'), fhost_hi ho').
Proof.
  intros K. destruct w; [|exists None; split; [right; reflexivity | reflexivity]].
  destruct (file_first_segment hd ho segs last q0 f0 (fk_segs _ _ _ _ _ _ _ K) (fk_last _ _ _ _ _ _ _ K)) as (seg & -> & ->).
  destruct ho as [h|].
  - destruct (fk_host _ _ _ _ _ _ _ K) as (Hne & _). rewrite (file_host_str hd h _ q0 f0 Hne).
    exists (Some h). split; [left; reflexivity | reflexivity].
  - exists None. split; [left; reflexivity | reflexivity].
Qed.

Lemma file_front_bound ho ho' segs last q0 f0 : file_ok ho segs last q0 f0 -> (ho' = ho \/ ho' = None) ->
  fhost_ok hp hd ho' /\ nlen (file_front ho') <= U32_MAX_P.
Proof.
  intros K [-> | ->]; [split; [exact (fk_host _ _ _ _ _ _ _ K) | exact (fk_b1 _ _ _ _ _ _ _ K)]|].
  split; [exact I | exact (file_front_none_bound hd)].
Qed.

(* the path arm: the reference is merged with the base path *)
Lemma file_path_arm ho segs last q0 f0 l u : file_ok ho segs last q0 f0 -> usv_list l ->
  (s1 <~ shorten_path STFile (nlen (file_front ho)) (file_front ho ++ path_text segs last) ;;
   ' (s2, _, rem) <~ parse_path dbg CUrlParser STFile true (nlen (file_front ho)) s1 l ;;
   with_query_and_fragment ovr CUrlParser STFile 4 7 7 (nlen (file_front ho)) (fhost_hi ho) None (nlen (file_front ho)) s2 rem)
  = POk u -> Known_file_drive u = false -> FileCanon u.
Proof.
  intros K Hl H Hk. destruct K as [Kh Ksegs Klast Kfirst Kq Kf Kb1 Kbq Kbf].
  rewrite shorten_path_pth_f in H.
  2:{ exact (good_seg_sp_no_slash last (fseg_ok_sp last Klast)). }
  2:{ apply like_not_nwdl. apply fseg_ok_like. exact Klast. }
  cbn [pbind] in H. unfold parse_path in H.
  destruct (parse_path_loop dbg CUrlParser STFile (nlen (file_front ho)) l (Bs (file_front ho) segs)
              (nlen (Bs (file_front ho) segs)) [] true) as [[[s2 hh2] rem]| |] eqn:E; cbn [pbind] in H; try discriminate H.
  destruct (loop_out_g dbg (file_front ho) l segs true s2 hh2 rem Hl (fsegs_ok_sp segs Ksegs) E) as [Hrem R].
  assert (exists X, s2 = file_front ho ++ X) as [X EX].
  { destruct R as [(segs' & last' & -> & _) | (a & Y & _ & ->)]; eexists; reflexivity. }
  rewrite EX in H. rewrite wqf_file in H. rewrite <- EX in H.
  exact (file_end hp hd ovr ho true s2 hh2 rem u Kh Kb1 Hrem R H Hk).
Qed.

Theorem parse_file_base ho segs last q0 f0 l u : file_ok ho segs last q0 f0 -> usv_list l ->
  parse_file dbg hp hd ovr CUrlParser STFile (Some (file_curl ho (path_text segs last) q0 f0)) l = POk u ->
  Known_file_drive u = false -> FileCanon u.
Proof.
  intros K Hl H Hk. destruct (tail_first l) eqn:Et.
  { rewrite parse_file_tail in H by exact Et. exact (file_tail_arm hp hd ovr ho segs last q0 f0 l u K Hl H). }
  unfold parse_file in H. unfold tail_first in Et. unfold inp_split_first in H at 1.
  destruct (inp_next l) as [[c af]|] eqn:E1; [|discriminate Et].
  apply orb_false_iff in Et. destruct Et as [E35 E63].
  assert (inp_split_first l = (Some c, af)) as E1' by (unfold inp_split_first; rewrite E1; reflexivity).
  pose proof (inp_next_usv l c af Hl E1) as Haf.
  destruct (is_slash_or_bslash c) eqn:Es1.
  - destruct (inp_split_first af) as [nc an] eqn:E2.
    destruct (match nc with Some c => is_slash_or_bslash c | None => false end) eqn:Es2.
    + destruct nc as [c2|]; [|discriminate Es2]. pose proof (inp_split_first_usv af c2 an Haf E2) as Han.
      exact (file_host_state dbg hp hpo hd HRT HAb HNE HW ovr an u Han H Hk).
    + destruct (file_base_triple ho segs last q0 f0 (negb (starts_with_wdl_segment af)) K) as (ho' & Hho' & Et).
      rewrite Et in H. clear Et. destruct (file_front_bound ho ho' segs last q0 f0 K Hho') as [Kh' Kb'].
      exact (file_one_slash dbg hp hd ovr ho' l c af u Kh' Kb' Haf E1' Es1 H Hk).
  - rewrite E63, E35 in H. destruct (negb (starts_with_wdl_segment l)).
    + unfold C02_File.file_curl in H. rewrite before_query_qf in H.
      cbn [qf_url scheme_end username_end host_start host_end hosti port path_start] in H.
      exact (file_path_arm ho segs last q0 f0 l u K Hl H Hk).
    + exact (file_no_slash dbg hp hd ovr l u Hl H Hk).
Qed.

(* every reference that has no scheme or the file scheme, against a canonical file base *)
Theorem join_file_base b input u : FileCanon b -> usv_list input -> nonfile_input input = false ->
  parse_url dbg hp hpo hd ovr (Some b) input = POk u -> Known_file_drive u = false -> FileCanon u.
Proof.
  intros [ho segs last q0 f0 K] Hu Hn H Hk. pose proof (usv_trim is_c0_or_space input Hu : usv_list (input_new_trim_c0 input)) as Hl.
  destruct (file_pre_sch hd ho (path_text segs last)) as [S1 S2].
  assert (b_scheme (file_curl ho (path_text segs last) q0 f0) = s_file) as Hbs
    by (unfold C02_File.file_curl; exact (b_scheme_qf _ _ _ _ _ _ _ _ q0 f0 s_file S1 S2)).
  unfold nonfile_input in Hn. unfold parse_url in H. set (l := input_new_trim_c0 input) in *.
  destruct (parse_scheme CUrlParser l) as [[sch rem]|] eqn:Hs.
  - unfold parse_with_scheme in H. destruct (to_u32 (nlen sch)) as [se| |]; cbn [pbind] in H; try discriminate H.
    destruct (scheme_type_of sch); try discriminate Hn.
    rewrite Hbs in H. change (list_eqb s_file s_file) with true in H. cbv iota in H.
    exact (parse_file_base ho segs last q0 f0 rem u K (scheme_rem_usv input sch rem Hu Hs) H Hk).
  - destruct (inp_starts_with_char 35 l);
      [exact (fragment_only_File hp hd _ l u (FileCanon_intro hp hd ho segs last q0 f0 K) Hl H)|].
    rewrite (file_curl_cbb hd ho (path_text segs last) q0 f0), Hbs in H.
    change (scheme_type_of s_file) with STFile in H. cbn [st_is_file] in H.
    exact (parse_file_base ho segs last q0 f0 l u K Hl H Hk).
Qed.
End ParseFileBase.
