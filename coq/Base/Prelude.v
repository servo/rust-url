(* Base/Prelude.v - shared imports, arithmetic hygiene, finite sweeps over N.
   Standard library only. *)
From Coq Require Export List NArith ZArith Bool Lia.
From Coq Require Export ZifyBool ZifyN ZifyNat.
Export ListNotations.
Open Scope N_scope.

(* `lia` gets `/` and `mod` as their defining equations (a = b * q + r, r < b): every later `lia` goal over quotients and remainders rests on this. *)
Ltac Zify.zify_post_hook ::= Z.div_mod_to_equations.

(* `simpl` / `cbn` leave binary arithmetic on open terms folded; closed terms are computed by `vm_compute` or `reflexivity`. *)
Arguments N.add : simpl never.
Arguments N.sub : simpl never.
Arguments N.mul : simpl never.
Arguments N.div : simpl never.
Arguments N.modulo : simpl never.
Arguments N.eqb : simpl never.
Arguments N.ltb : simpl never.
Arguments N.leb : simpl never.
Arguments N.testbit : simpl never.
Arguments N.land : simpl never.
Arguments N.lor : simpl never.
Arguments N.lxor : simpl never.
Arguments N.ldiff : simpl never.
Arguments N.shiftl : simpl never.
Arguments N.shiftr : simpl never.
Arguments N.pow : simpl never.

(* finite sweeps: forall b < n, f b = true, decided by computation *)

Definition sweep_step (f : N -> bool) (st : N * bool) : N * bool :=
  (fst st + 1, snd st && f (fst st)).

Definition all_below (n : N) (f : N -> bool) : bool :=
  snd (N.iter n (sweep_step f) (0, true)).

Lemma sweep_iter_fst f n : fst (N.iter n (sweep_step f) (0, true)) = n.
Proof.
  induction n as [|n IH] using N.peano_ind.
  - reflexivity.
  - rewrite N.iter_succ. unfold sweep_step at 1. cbn [fst]. rewrite IH. lia.
Qed.

Lemma all_below_spec n f :
  all_below n f = true -> forall b, b < n -> f b = true.
Proof.
  unfold all_below.
  induction n as [|n IH] using N.peano_ind; intros H b Hb.
  - lia.
  - rewrite N.iter_succ in H. unfold sweep_step at 1 in H. cbn [snd] in H.
    rewrite sweep_iter_fst in H.
    apply andb_true_iff in H. destruct H as [H1 H2].
    destruct (N.eq_dec b n) as [->|Hne].
    + exact H2.
    + apply IH; [exact H1 | lia].
Qed.

(* two-dimensional sweep *)
Definition all_below2 (n m : N) (f : N -> N -> bool) : bool :=
  all_below n (fun a => all_below m (f a)).

Lemma all_below2_spec n m f :
  all_below2 n m f = true -> forall a b, a < n -> b < m -> f a b = true.
Proof.
  unfold all_below2. intros H a b Ha Hb.
  pose proof (all_below_spec n _ H a Ha) as H1. cbv beta in H1.
  exact (all_below_spec m _ H1 b Hb).
Qed.

Definition is_byte (b : N) : Prop := b < 256.
Definition bytes (l : list N) : Prop := Forall is_byte l.
Definition is_ascii (b : N) : Prop := b < 128.
Definition ascii (l : list N) : Prop := Forall is_ascii l.
Definition is_usv (c : N) : Prop := c < 55296 \/ (57344 <= c /\ c < 1114112).
Definition usv_list (l : list N) : Prop := Forall is_usv l.

Definition is_byteb (b : N) : bool := b <? 256.
Definition is_usvb (c : N) : bool := (c <? 55296) || ((57344 <=? c) && (c <? 1114112)).

Lemma is_usvb_spec c : is_usvb c = true <-> is_usv c.
Proof. unfold is_usvb, is_usv. lia. Qed.

Lemma bytes_app a b : bytes (a ++ b) <-> bytes a /\ bytes b.
Proof. unfold bytes. apply Forall_app. Qed.

Lemma ascii_app a b : ascii (a ++ b) <-> ascii a /\ ascii b.
Proof. unfold ascii. apply Forall_app. Qed.

Lemma ascii_bytes l : ascii l -> bytes l.
Proof. unfold ascii, bytes, is_ascii, is_byte. intros H. eapply Forall_impl; [|exact H]. cbv beta. intros; lia. Qed.

(* list equality on N, boolean *)
Fixpoint list_eqb (a b : list N) : bool :=
  match a, b with
  | [], [] => true
  | x :: a', y :: b' => (x =? y) && list_eqb a' b'
  | _, _ => false
  end.

Lemma list_eqb_spec a b : list_eqb a b = true <-> a = b.
Proof.
  revert b. induction a as [|x a IH]; intros [|y b]; cbn [list_eqb]; split; intros H; try congruence; try reflexivity.
  - apply andb_true_iff in H. destruct H as [H1 H2]. apply N.eqb_eq in H1. apply IH in H2. congruence.
  - inversion H; subst. rewrite N.eqb_refl. cbn. apply IH. reflexivity.
Qed.

(* membership on N lists, boolean *)
Fixpoint memb (x : N) (l : list N) : bool :=
  match l with [] => false | y :: r => (x =? y) || memb x r end.

Lemma memb_spec x l : memb x l = true <-> In x l.
Proof.
  induction l as [|y r IH]; cbn [memb In].
  - split; [discriminate | tauto].
  - rewrite orb_true_iff, IH, N.eqb_eq. split; intros [H|H]; auto.
Qed.

(* ASCII case *)
Definition is_upper (c : N) : bool := (65 <=? c) && (c <=? 90).
Definition is_lower (c : N) : bool := (97 <=? c) && (c <=? 122).
Definition is_alpha (c : N) : bool := is_upper c || is_lower c.
Definition is_digit (c : N) : bool := (48 <=? c) && (c <=? 57).
Definition is_alnum (c : N) : bool := is_alpha c || is_digit c.
Definition to_lower (c : N) : N := if is_upper c then c + 32 else c.
Definition to_upper (c : N) : N := if is_lower c then c - 32 else c.

(* hex digits *)
Definition hex_upper (d : N) : N := if d <? 10 then 48 + d else 55 + d.   (* 0-9 A-F *)
Definition hex_lower (d : N) : N := if d <? 10 then 48 + d else 87 + d.   (* 0-9 a-f *)
Definition hex_val (c : N) : option N :=
  if is_digit c then Some (c - 48)
  else if (65 <=? c) && (c <=? 70) then Some (c - 55)
  else if (97 <=? c) && (c <=? 102) then Some (c - 87)
  else None.

Lemma hex_val_upper d : d < 16 -> hex_val (hex_upper d) = Some d.
Proof. unfold hex_val, hex_upper, is_digit. intros H.
  destruct (d <? 10) eqn:E.
  - replace ((48 <=? 48 + d) && (48 + d <=? 57)) with true by lia. f_equal. lia.
  - replace ((48 <=? 55 + d) && (55 + d <=? 57)) with false by lia.
    replace ((65 <=? 55 + d) && (55 + d <=? 70)) with true by lia. f_equal. lia.
Qed.

Lemma hex_val_lower d : d < 16 -> hex_val (hex_lower d) = Some d.
Proof. unfold hex_val, hex_lower, is_digit. intros H.
  destruct (d <? 10) eqn:E.
  - replace ((48 <=? 48 + d) && (48 + d <=? 57)) with true by lia. f_equal. lia.
  - replace ((48 <=? 87 + d) && (87 + d <=? 57)) with false by lia.
    replace ((65 <=? 87 + d) && (87 + d <=? 70)) with false by lia.
    replace ((97 <=? 87 + d) && (87 + d <=? 102)) with true by lia. f_equal. lia.
Qed.

Lemma hex_val_bound c v : hex_val c = Some v -> v < 16.
Proof. unfold hex_val, is_digit. intros H.
  destruct ((48 <=? c) && (c <=? 57)) eqn:E1; [inversion H; lia|].
  destruct ((65 <=? c) && (c <=? 70)) eqn:E2; [inversion H; lia|].
  destruct ((97 <=? c) && (c <=? 102)) eqn:E3; [inversion H; lia|discriminate].
Qed.
