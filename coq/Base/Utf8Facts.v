(* Base/Utf8Facts.v - the scanner of Base/Utf8.v undoes the encoder: for a list `s` of scalar values, `utf8_scan (utf8_encode s)`
   is the list of `UCp c (usv_width c)` for `c` in `s`, hence strict and lossy decoding of `utf8_encode s` give `s` back. *)
From RU Require Import Base.Prelude Base.Utf8.

(* the number of bytes `utf8_encode1 c` produces, which is the `len` field the scanner reports for `c` *)
Definition usv_width (c : N) : N :=
  if c <? 128 then 1 else if c <? 2048 then 2 else if c <? 65536 then 3 else 4.

(* what the scanner does on a well-formed sequence of two, three and four bytes *)
Lemma utf8_scan_2 b c1 rest : 194 <= b <= 223 -> is_cont c1 = true ->
  utf8_scan (b :: c1 :: rest) = UCp ((b - 192) * 64 + (c1 - 128)) 2 :: utf8_scan rest.
Proof.
  intros Hb H1. cbn [utf8_scan]. rewrite H1.
  replace (b <? 128) with false by lia. now replace ((194 <=? b) && (b <=? 223)) with true by lia.
Qed.

Lemma utf8_scan_3 b c1 c2 rest : 224 <= b <= 239 -> ok3 b c1 = true -> is_cont c2 = true ->
  utf8_scan (b :: c1 :: c2 :: rest) = UCp ((b - 224) * 4096 + (c1 - 128) * 64 + (c2 - 128)) 3 :: utf8_scan rest.
Proof.
  intros Hb H1 H2. cbn [utf8_scan]. rewrite H1, H2.
  replace (b <? 128) with false by lia. replace ((194 <=? b) && (b <=? 223)) with false by lia.
  now replace ((224 <=? b) && (b <=? 239)) with true by lia.
Qed.

Lemma utf8_scan_4 b c1 c2 c3 rest : 240 <= b <= 244 -> ok4 b c1 = true -> is_cont c2 = true -> is_cont c3 = true ->
  utf8_scan (b :: c1 :: c2 :: c3 :: rest)
  = UCp ((b - 240) * 262144 + (c1 - 128) * 4096 + (c2 - 128) * 64 + (c3 - 128)) 4 :: utf8_scan rest.
Proof.
  intros Hb H1 H2 H3. cbn [utf8_scan]. rewrite H1, H2, H3.
  replace (b <? 128) with false by lia. replace ((194 <=? b) && (b <=? 223)) with false by lia.
  replace ((224 <=? b) && (b <=? 239)) with false by lia.
  now replace ((240 <=? b) && (b <=? 244)) with true by lia.
Qed.

(* The digits of c in base 64 are named first, so that every later step is linear arithmetic. *)
Lemma utf8_scan_encode1 c rest :
  is_usv c -> utf8_scan (utf8_encode1 c ++ rest) = UCp c (usv_width c) :: utf8_scan rest.
Proof.
  intros Hc. unfold utf8_encode1, usv_width, is_usv in *.
  destruct (N.ltb_spec c 128); [cbn [app utf8_scan]; now replace (c <? 128) with true by lia|].
  destruct (N.ltb_spec c 2048); [|destruct (N.ltb_spec c 65536)]; cbn [app].
  - assert (E : c = 64 * (c / 64) + c mod 64 /\ c mod 64 < 64) by lia.
    revert E. generalize (c / 64) (c mod 64). intros q r [-> Hr].
    rewrite utf8_scan_2 by (unfold is_cont; lia). do 2 f_equal. lia.
  - assert (E : c = 4096 * (c / 4096) + 64 * ((c / 64) mod 64) + c mod 64 /\ (c / 64) mod 64 < 64 /\ c mod 64 < 64)
      by lia.
    revert E. generalize (c / 4096) ((c / 64) mod 64) (c mod 64). intros a q r (-> & Hq & Hr).
    rewrite utf8_scan_3 by (unfold ok3, is_cont; lia). do 2 f_equal. lia.
  - assert (E : c = 262144 * (c / 262144) + 4096 * ((c / 4096) mod 64) + 64 * ((c / 64) mod 64) + c mod 64
                /\ (c / 4096) mod 64 < 64 /\ (c / 64) mod 64 < 64 /\ c mod 64 < 64) by lia.
    revert E. generalize (c / 262144) ((c / 4096) mod 64) ((c / 64) mod 64) (c mod 64).
    intros a p q r (-> & Hp & Hq & Hr).
    rewrite utf8_scan_4 by (unfold ok4, is_cont; lia). do 2 f_equal. lia.
Qed.

Lemma utf8_scan_encode s :
  usv_list s -> utf8_scan (utf8_encode s) = map (fun c => UCp c (usv_width c)) s.
Proof.
  induction s as [|c s IH]; intros H.
  - reflexivity.
  - inversion H as [|? ? Hc Hs]; subst. unfold utf8_encode. cbn [flat_map map].
    rewrite utf8_scan_encode1 by exact Hc. f_equal. apply IH. exact Hs.
Qed.

Theorem utf8_lossy_encode s : usv_list s -> utf8_lossy (utf8_encode s) = s.
Proof.
  intros H. unfold utf8_lossy. rewrite utf8_scan_encode by exact H.
  rewrite map_map. cbn. apply map_id.
Qed.

Lemma strict_of_items_cps acc upto s :
  strict_of_items acc upto (map (fun c => UCp c (usv_width c)) s) = inl (rev acc ++ s).
Proof.
  revert acc upto. induction s as [|c s IH]; intros acc upto; cbn [map strict_of_items].
  - rewrite app_nil_r. reflexivity.
  - rewrite IH. cbn [rev]. rewrite <- app_assoc. reflexivity.
Qed.

Theorem utf8_strict_encode s : usv_list s -> utf8_strict (utf8_encode s) = inl s.
Proof.
  intros H. unfold utf8_strict. rewrite utf8_scan_encode by exact H.
  rewrite strict_of_items_cps. reflexivity.
Qed.

Lemma utf8_encode1_bytes c : is_usv c -> bytes (utf8_encode1 c).
Proof.
  intros Hc. unfold utf8_encode1, is_usv, bytes, is_byte in *.
  destruct (c <? 128) eqn:E1; [repeat constructor; lia|].
  destruct (c <? 2048) eqn:E2; [repeat constructor; lia|].
  destruct (c <? 65536) eqn:E3; repeat constructor; lia.
Qed.

Lemma utf8_encode_bytes s : usv_list s -> bytes (utf8_encode s).
Proof.
  induction s as [|c s IH]; intros H.
  - constructor.
  - inversion H; subst. unfold utf8_encode. cbn [flat_map]. apply bytes_app. split.
    + apply utf8_encode1_bytes. assumption.
    + apply IH. assumption.
Qed.

Lemma utf8_encode_app a b : utf8_encode (a ++ b) = utf8_encode a ++ utf8_encode b.
Proof. unfold utf8_encode. apply flat_map_app. Qed.

Lemma utf8_encode1_low c b : In b (utf8_encode1 c) -> b < 128 -> b = c.
Proof.
  unfold utf8_encode1. intros Hin Hb.
  destruct (c <? 128) eqn:E1; [cbn [In] in Hin; destruct Hin as [<-|[]]; reflexivity|].
  destruct (c <? 2048) eqn:E2; [cbn [In] in Hin; exfalso; lia|].
  destruct (c <? 65536) eqn:E3; cbn [In] in Hin; exfalso; lia.
Qed.

Lemma utf8_encode_nil_iff s : utf8_encode s = [] <-> s = [].
Proof.
  split; [|intros ->; reflexivity]. destruct s as [|c r]; [reflexivity|].
  unfold utf8_encode. cbn [flat_map]. unfold utf8_encode1.
  destruct (c <? 128); [discriminate|]. destruct (c <? 2048); [discriminate|].
  destruct (c <? 65536); discriminate.
Qed.
