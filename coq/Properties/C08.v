(* Properties/C08.v - reference resolution laws.
   Url::join(b, r) = parse_url dbg hp hpo hd None (Some b) r  (Model/Parser.v; no encoding override in join);
   Url::make_relative = Model/MakeRelative.v.  All theorems: both build configurations (dbg), arbitrary host
   functions.  Vocabulary:
     ref_text input        the reference as the parser sees it: C0/space trimmed, TAB/LF/CR removed
     wf_b                  the executable structural invariant of Model/WF.v
     without_fragment b    the record of b with the serialization cut at '#', fragment_start = None
     with_fragment b x     without_fragment b ++ "#" ++ x, fragment_start at the '#'
     with_query b Q F      (b cut at '?' or '#') ++ "?" ++ Q [++ "#" ++ F], offsets accordingly
     ref_query st q        encode (QUERY or SPECIAL_QUERY by scheme) (utf8 (q up to the first '#'))
     ref_fragment q        encode FRAGMENT (utf8 (q after the first '#')), if there is a '#'
     same_main b u         scheme_end, username_end, host_start, host_end, host kind, port, path_start equal
     same_front dbg b u    scheme(), username(), password(), host_str(), port() read the same
     agree_pre n s s'      the first n bytes of s' are those of s
     contain_pre b input   ref_text input has no scheme and does not start with two slash characters
                           ('/', and '\' only when b's scheme is special)
     abs_shape txt         txt starts with a non-special scheme, or a special scheme followed by >= 2 slashes,
                           or "file:" followed by two slashes  (decided on the text)
     mr_ok b t             the positive domain of the make_relative inverse law (Model/KnownC08.v; excluded classes
                           3, 41, 42, 43, 45, 46 - see section 6)
     hier_url pre se ue hs he hi po segs last q f
                           the record  pre "/" seg "/" ... "/" last ["?" q]["#" f]  with path_start = |pre| and
                           query_start / fragment_start at the '?' / '#'  (Proofs/C08_RelMr.v)
     rel_ok ...            pre carries "://" at offset se or is just "scheme:", the scheme is not "file", the base's segments are free
                           of '/', the target's segments / query / fragment are what the parser stores (clean for
                           PATH / QUERY-or-SPECIAL_QUERY / FRAGMENT, no dot segment, no '\' under a special scheme),
                           the target is shorter than 2^32  (Proofs/C08_RelLaw.v)
     rel_canon b t         the same as ONE computable test on two arbitrary records: both are of the hier_url form
                           (decided by re-building the record from its own accessors), base "scheme://..." or
                           "scheme:/path" and not file, target canonical, the seven stored values in front of the path agree, mr_ok b t
                           (Proofs/C08_RelCanon.v) *)
From Coq Require Import String.
From RU Require Import Base.Prelude Base.Utf8 Base.Utf8Facts Model.AsciiSet Gen.Tables Model.PercentEncoding
  Model.HostT Model.UrlRecord Model.Parser Model.Setters Model.WF Model.MakeRelative Model.KnownC08
  Proofs.ListN Proofs.C02_Enc Proofs.C02_Parts Proofs.C02_Opaque Proofs.C02_Path Proofs.C02_PathL1 Proofs.C02_Reach
  Proofs.C03_WF Proofs.C06_List Proofs.C06_WFI Proofs.C06_Tail
  Proofs.C08_Input Proofs.C08_Simple Proofs.C08_Contain Proofs.C08_NoAuth Proofs.C08_Absolute Proofs.C08_Relative Proofs.C08_RelEval
  Proofs.C08_RelPath Proofs.C08_RelJoin Proofs.C08_RelMr Proofs.C08_RelLaw Proofs.C08_RelCanon Proofs.C08_RelNoAuth
  Proofs.C02_AuthParts Proofs.C02_Auth Proofs.C02_AuthSp Proofs.C02_AuthMain Proofs.C08_AbsNonfile Proofs.C08_RelAuth Proofs.C08_RelRecog Proofs.C08_Parsed Proofs.C08_ContainFile
  Proofs.C02_Hist Proofs.C02_Canon Proofs.C02_SetHostCanon Proofs.C02_Reach5 Proofs.C09_Host Proofs.C02_Reach4 Model.Host Proofs.C08_Reach Proofs.C08_ContainFileFront Proofs.C02_Stmt4 Proofs.C08_Stmt.
From RU Require Properties.C02.
Open Scope N_scope.
Open Scope list_scope.

Notation join dbg hp hpo hd b input := (parse_url dbg hp hpo hd None (Some b) input).

(* 1. the empty reference: the base without its fragment (FULL) *)
Theorem C08_empty : forall dbg hp hpo hd b input,
  cannot_be_a_base b = Some false -> ref_text input = [] ->
  join dbg hp hpo hd b input = POk (without_fragment b).
Proof. exact join_empty. Qed.
Check C08_empty : forall dbg hp hpo hd b input,
  cannot_be_a_base b = Some false -> ref_text input = [] ->
  parse_url dbg hp hpo hd None (Some b) input = POk (url_with b (b_before_fragment b) (query_start b) None).
Print Assumptions C08_empty.

(* what that record means for the accessors of a well-formed base *)
Theorem C08_empty_accessors : forall dbg b, wf_b b = true ->
  let u' := without_fragment b in
  wf_b u' = true /\ same_front dbg b u' /\ same_main b u' /\ path u' = path b /\ query dbg u' = query dbg b
  /\ fragment dbg u' = Some None /\ query_start u' = query_start b /\ fragment_start u' = None
  /\ ser u' = b_before_fragment b.
Proof. exact without_fragment_spec. Qed.
Print Assumptions C08_empty_accessors.

(* 2. '#' f replaces only the fragment (FULL; also for cannot-be-a-base bases) *)
Theorem C08_frag : forall dbg hp hpo hd b input f,
  usv_list input -> ref_text input = 35 :: f -> nlen (b_before_fragment b) <= U32_MAX_P ->
  join dbg hp hpo hd b input = POk (with_fragment b (encode T_FRAGMENT (utf8_encode f))).
Proof. exact join_frag. Qed.
Check C08_frag : forall dbg hp hpo hd b input f,
  usv_list input -> ref_text input = 35 :: f -> nlen (b_before_fragment b) <= U32_MAX_P ->
  parse_url dbg hp hpo hd None (Some b) input
  = POk (url_with b (b_before_fragment b ++ 35 :: encode T_FRAGMENT (utf8_encode f)) (query_start b)
                  (Some (nlen (b_before_fragment b)))).
Print Assumptions C08_frag.

(* without the length premise: the only other outcome is Err(Overflow) *)
Theorem C08_frag_any_length : forall dbg hp hpo hd b input f,
  usv_list input -> ref_text input = 35 :: f ->
  join dbg hp hpo hd b input = (fs <~ to_u32 (nlen (b_before_fragment b)) ;;
                                POk (with_fragment b (encode T_FRAGMENT (utf8_encode f)))).
Proof. exact join_frag_eq. Qed.
Print Assumptions C08_frag_any_length.

Theorem C08_frag_accessors : forall dbg b x, wf_b b = true ->
  let u' := with_fragment b x in
  wf_b u' = true /\ same_front dbg b u' /\ same_main b u' /\ path u' = path b /\ query dbg u' = query dbg b
  /\ fragment dbg u' = Some (Some x) /\ ser u' = b_before_fragment b ++ 35 :: x.
Proof. exact with_fragment_spec. Qed.
Print Assumptions C08_frag_accessors.

(* 3. '?' q replaces only query and fragment (FULL, file and non-file bases) *)
Theorem C08_query : forall dbg hp hpo hd b input q u',
  wf_b b = true -> cannot_be_a_base b = Some false -> usv_list input -> ref_text input = 63 :: q ->
  join dbg hp hpo hd b input = POk u' ->
  u' = with_query b (ref_query (b_st b) q) (ref_fragment q) /\ forallb no_h (ref_query (b_st b) q) = true.
Proof. exact join_query. Qed.
Check C08_query : forall dbg hp hpo hd b input q u',
  wf_b b = true -> cannot_be_a_base b = Some false -> usv_list input -> ref_text input = 63 :: q ->
  parse_url dbg hp hpo hd None (Some b) input = POk u' ->
  u' = with_query b (ref_query (b_st b) q) (ref_fragment q) /\ forallb no_h (ref_query (b_st b) q) = true.
Print Assumptions C08_query.

Theorem C08_query_accessors : forall dbg (hp hpo : list N -> result host) b Q F, wf_b b = true -> forallb no_h Q = true ->
  let u' := with_query b Q F in
  wf_b u' = true /\ same_front dbg b u' /\ same_main b u' /\ path u' = path b
  /\ query dbg u' = Some (Some Q) /\ fragment dbg u' = Some F.
Proof. exact with_query_spec. Qed.
Print Assumptions C08_query_accessors.

(* 4. containment (FULL for every non-file base) *)
(* what "never changes scheme, credentials, host or port" means on the record (Proofs/C08_NoAuth.v):
   contained dbg b u' :=
     the six offsets / host kind / port in front of the path are the base's,
     scheme(), username(), password(), host_str(), port() read the same (same_front), and
     - base with authority: path_start is the base's, everything in front of the path is byte-identical
       (agree_pre (path_start b)), and the result is well-formed (wf_b);
     - base without authority ("scheme:/path", possibly with the "/." marker, which with_query_and_fragment
       may insert or remove, moving path_start by 2): "scheme:/" is byte-identical (agree_pre (scheme_end b + 2));
       there are no credentials, host or port. *)
Definition C08_contain_statement : Prop :=
  forall dbg hp hpo hd b input u',
  wf_b b = true -> cannot_be_a_base b = Some false -> st_is_file (b_st b) = false ->
  usv_list input -> contain_pre b input = true ->
  join dbg hp hpo hd b input = POk u' -> contained dbg b u'.

Theorem C08_contain : C08_contain_statement.
Proof. exact contain_nonfile. Qed.
Check C08_contain : forall dbg hp hpo hd b input u',
  wf_b b = true -> cannot_be_a_base b = Some false -> st_is_file (b_st b) = false ->
  usv_list input -> contain_pre b input = true ->
  parse_url dbg hp hpo hd None (Some b) input = POk u' ->
  scheme_end u' = scheme_end b /\ username_end u' = username_end b /\ host_start u' = host_start b
  /\ host_end u' = host_end b /\ hosti u' = hosti b /\ port u' = port b
  /\ same_front dbg b u'
  /\ (if has_authority_b b
      then path_start u' = path_start b /\ agree_pre (path_start b) (ser b) (ser u') /\ wf_b u' = true
      else agree_pre (scheme_end b + 2) (ser b) (ser u')).
Print Assumptions C08_contain.

(* the case with authority on its own (every special non-file URL, every "scheme://..." URL) *)
Theorem C08_contain_auth : forall dbg hp hpo hd b input u',
  wf_b b = true -> has_authority_b b = true -> st_is_file (b_st b) = false ->
  usv_list input -> contain_pre b input = true ->
  join dbg hp hpo hd b input = POk u' ->
  wf_b u' = true /\ same_front dbg b u' /\ same_main b u' /\ agree_pre (path_start b) (ser b) (ser u').
Proof. exact contain_auth. Qed.
Print Assumptions C08_contain_auth.

(* file bases are NOT covered by C08_contain (only by C08_empty / C08_frag / C08_query); for them: *)
Definition C08_contain_file_statement : Prop :=
  forall dbg hp hpo hd b input u',
  wf_b b = true -> cannot_be_a_base b = Some false -> st_is_file (b_st b) = true ->
  usv_list input -> contain_pre b input = true ->
  join dbg hp hpo hd b input = POk u' ->
  hosti u' = hosti b \/ hosti u' = HI_None.   (* the host is kept or dropped (F-C08-1), never replaced *)

(* PROVED in full (every arm of parse_file with a base copies the base's host kind or stores none); the stronger
   form needs neither wf_b nor usv_list *)
Theorem C08_contain_file : C08_contain_file_statement.
Proof. intros dbg hp hpo hd b input u' _ Hc Hf _ Hcp Hj. exact (contain_file dbg hp hpo hd b input u' Hc Hf Hcp Hj). Qed.
Check C08_contain_file : forall dbg hp hpo hd b input u',
  wf_b b = true -> cannot_be_a_base b = Some false -> st_is_file (b_st b) = true ->
  usv_list input -> contain_pre b input = true ->
  parse_url dbg hp hpo hd None (Some b) input = POk u' ->
  hosti u' = hosti b \/ hosti u' = HI_None.
Print Assumptions C08_contain_file.
Theorem C08_contain_file_any : forall dbg hp hpo hd b input u',
  cannot_be_a_base b = Some false -> st_is_file (b_st b) = true -> contain_pre b input = true ->
  join dbg hp hpo hd b input = POk u' -> hosti u' = hosti b \/ hosti u' = HI_None.
Proof. exact contain_file. Qed.
Print Assumptions C08_contain_file_any.
(* non-vacuity: against file://host/dir/f the references x/y?q, /x, ../.. keep the host, /c:/x and C| drop it *)
Example C08_contain_file_inhabited :
  file_contain_case "file://host/dir/f" "x/y?q" true = true
  /\ file_contain_case "file://host/dir/f" "/x" true = true
  /\ file_contain_case "file://host/dir/f" "../.." true = true
  /\ file_contain_case "file://host/dir/f" "/c:/x" false = true
  /\ file_contain_case "file://host/dir/f" "C|" false = true.
Proof. vm_compute. repeat split. Qed.

(* file bases: the drive-letter branch drops the host (F-C01-1 / F-C08-1, in url/tests/expected_failures.txt);
   F-C08-5 = F-C01-4, fixed in rust-url, does not reproduce on the model (C08_5_fixed) *)
Theorem C08_1_refuted :
  contain_refutes "file://host/path" "/c:/foo/bar" = true /\ contain_refutes "file://host/path" "/C|/x" = true.
Proof. vm_compute. split; reflexivity. Qed.
Print Assumptions C08_1_refuted.
Theorem C08_5_fixed : contain_refutes "non-spec://good.example/dir/file" "\\evil.example/x" = false.
Proof. vm_compute. reflexivity. Qed.
Print Assumptions C08_5_fixed.

(* 5. an absolute URL's own serialization resolves to itself *)
(* the law under the host hypothesis HostOK (Proofs/C02_Reach.v), which url::Host cannot meet
   (Properties/C02.v C02_HostOK_old_unsat_model), so it says nothing about the real host functions;
   C08_absolute_statement2 and C08_absolute_statement4 are the forms under the satisfiable HostOK2 *)
Definition C08_absolute_statement : Prop :=
  forall dbg hp hpo hd, HostOK hp hpo hd ->
  forall u b, Reachable dbg hp hpo hd u -> Reachable dbg hp hpo hd b ->
  join dbg hp hpo hd b (utf8_lossy (ser u)) = POk u.
(* the statement under the second quantifier of C02 (Proofs/C02_Hist.v): host functions constrained by
   HostOK2 = HostRT /\ host_above /\ ip_clause - proved of the host model Model/Host.v under IdnaOK
   (C02_HostOK2_model) - and Reachable2 (Reachable minus the class Known_F_C02_9).  FALSE as stated:
   C08_absolute_statement2_refuted (7b; Reachable2 contains the class F-C07-8), C08_absolute_statement4 is the form
   without that class.  Proved for parse results of non-file schemes: C08_absolute_nonfile2,
   C08_absolute_parsed_nonfile2 below *)
Definition C08_absolute_statement2 : Prop :=
  forall dbg hp hpo hd, HostOK2 hp hpo hd ->
  forall u b, Reachable2 dbg hp hpo hd u -> Reachable2 dbg hp hpo hd b ->
  join dbg hp hpo hd b (utf8_lossy (ser u)) = POk u.

(* the dispatch lemma, for ALL texts of the shape and all bases (also cannot-be-a-base ones): the base is
   not consulted - in particular the same-scheme shortcut of special schemes does not fire *)
Theorem C08_absolute_dispatch : forall dbg hp hpo hd ovr b txt, abs_shape txt = true ->
  parse_url dbg hp hpo hd ovr (Some b) txt = parse_url dbg hp hpo hd ovr None txt.
Proof. exact abs_dispatch. Qed.
Check C08_absolute_dispatch : forall dbg hp hpo hd ovr b txt, abs_shape txt = true ->
  parse_url dbg hp hpo hd ovr (Some b) txt = parse_url dbg hp hpo hd ovr None txt.
Print Assumptions C08_absolute_dispatch.

(* canonical text "scheme://rest" has the shape whatever the scheme type *)
Theorem C08_absolute_shape : forall sch rest, scheme_canon sch = true -> edge_ok (sch ++ 58 :: 47 :: 47 :: rest) ->
  abs_shape (sch ++ 58 :: 47 :: 47 :: rest) = true.
Proof.
  intros sch rest.
  intros Hs He. unfold abs_shape. rewrite trim_c0_id by exact He. rewrite parse_scheme_canon by exact Hs.
  destruct (scheme_type_of sch).
  - reflexivity.
  - pose proof (count_two_slashes rest). lia.
  - reflexivity.
Qed.
Print Assumptions C08_absolute_shape.

(* hence: the law = C02's re-parse theorem, for every record *)
Theorem C08_absolute_partial : forall dbg hp hpo hd b u,
  Fixpoint_of_reparse dbg hp hpo hd u -> abs_shape (utf8_lossy (ser u)) = true ->
  join dbg hp hpo hd b (utf8_lossy (ser u)) = POk u.
Proof. exact absolute_of_reparse. Qed.
Check C08_absolute_partial : forall dbg hp hpo hd b u,
  parse_url dbg hp hpo hd None None (utf8_lossy (ser u)) = POk u -> abs_shape (utf8_lossy (ser u)) = true ->
  parse_url dbg hp hpo hd None (Some b) (utf8_lossy (ser u)) = POk u.
Print Assumptions C08_absolute_partial.

(* URLs with authority: the shape premise is free (trimming cannot reach "scheme://", whatever follows), so for
   them the law is EXACTLY C02's re-parse identity - nothing else is needed.  (Every class for which C02 proves
   re-parsing transfers through this theorem or C08_absolute_partial: C08_absolute_nonfile, C08_absolute_reach and
   C08_absolute_reach7 below.) *)
Theorem C08_absolute_shape_any : forall sch rest, scheme_canon sch = true ->
  abs_shape (sch ++ 58 :: 47 :: 47 :: rest) = true.
Proof. exact abs_shape_slashes_any. Qed.
Print Assumptions C08_absolute_shape_any.
Theorem C08_absolute_auth_partial : forall dbg hp hpo hd b u sch rest,
  Fixpoint_of_reparse dbg hp hpo hd u -> utf8_lossy (ser u) = sch ++ 58 :: 47 :: 47 :: rest -> scheme_canon sch = true ->
  join dbg hp hpo hd b (utf8_lossy (ser u)) = POk u.
Proof. exact absolute_of_reparse_auth. Qed.
Check C08_absolute_auth_partial : forall dbg hp hpo hd b u sch rest,
  parse_url dbg hp hpo hd None None (utf8_lossy (ser u)) = POk u ->
  utf8_lossy (ser u) = sch ++ 58 :: 47 :: 47 :: rest -> scheme_canon sch = true ->
  parse_url dbg hp hpo hd None (Some b) (utf8_lossy (ser u)) = POk u.
Print Assumptions C08_absolute_auth_partial.
Example C08_absolute_auth_inhabited :
  let u := hier_url (B "http://h") 4 7 7 8 HI_Domain None [B "a"] (B "b") (Some (B "q")) (Some (B "f")) in
  toy_parse "http://h/a/b?q#f" = POk u /\ Fixpoint_of_reparse true toy_hp toy_hp toy_hd u
  /\ utf8_lossy (ser u) = B "http" ++ 58 :: 47 :: 47 :: B "h/a/b?q#f" /\ scheme_canon (B "http") = true.
Proof. vm_compute. repeat split. Qed.

(* PROVED for every URL parsed without a base whose scheme is not "file" (nonfile_input: decided on the input -
   it has a scheme other than file; C02's classes (i)-(iv)): its serialization resolves to itself against ANY base
   record b (no premise on b at all - not even well-formedness; cannot-be-a-base bases included).  Host hypotheses
   as in C02: HostRT (the parsing clauses of HostOK; HostOK implies it, C02_AuthParts.HostOK_RT) and host_above
   (displayed hosts are above U+0020).  Not covered, towards C08_absolute_statement: u with scheme "file" (outside
   Known_file_drive: C08_absolute_parsed_all, 9.5), u produced by a join or by a setter rather than by a no-base
   parse (C08_absolute_reach, C08_absolute_reach7). *)
Theorem C08_absolute_nonfile : forall dbg hp hpo hd, HostRT hp hpo hd -> host_above hp hpo hd ->
  forall b input u, usv_list input -> nonfile_input input = true ->
  parse_url dbg hp hpo hd None None input = POk u ->
  join dbg hp hpo hd b (utf8_lossy (ser u)) = POk u.
Proof. intros dbg hp hpo hd HRT HAb b input u. exact (absolute_nonfile dbg hp hpo hd HRT b input u HAb). Qed.
Check C08_absolute_nonfile : forall dbg hp hpo hd, HostRT hp hpo hd -> host_above hp hpo hd ->
  forall b input u, usv_list input -> nonfile_input input = true ->
  parse_url dbg hp hpo hd None None input = POk u ->
  parse_url dbg hp hpo hd None (Some b) (utf8_lossy (ser u)) = POk u.
Print Assumptions C08_absolute_nonfile.
(* the same under HostOK, the hypothesis of C08_absolute_statement *)
Theorem C08_absolute_nonfile_HostOK : forall dbg hp hpo hd, HostOK hp hpo hd -> host_above hp hpo hd ->
  forall b input u, usv_list input -> nonfile_input input = true ->
  parse_url dbg hp hpo hd None None input = POk u ->
  join dbg hp hpo hd b (utf8_lossy (ser u)) = POk u.
Proof. intros dbg hp hpo hd HOK HAb b input u. exact (absolute_nonfile_HostOK dbg hp hpo hd b input u HOK HAb). Qed.
Print Assumptions C08_absolute_nonfile_HostOK.
(* the same under HostOK2, the hypothesis of C08_absolute_statement2 (satisfiable: C02_HostOK2_model) *)
Theorem C08_absolute_nonfile2 : forall dbg hp hpo hd, HostOK2 hp hpo hd ->
  forall b input u, usv_list input -> nonfile_input input = true ->
  parse_url dbg hp hpo hd None None input = POk u ->
  join dbg hp hpo hd b (utf8_lossy (ser u)) = POk u.
Proof. intros dbg hp hpo hd (HRT & HAb & _) b input u. exact (absolute_nonfile dbg hp hpo hd HRT b input u HAb). Qed.
Check C08_absolute_nonfile2 : forall dbg hp hpo hd, HostOK2 hp hpo hd ->
  forall b input u, usv_list input -> nonfile_input input = true ->
  parse_url dbg hp hpo hd None None input = POk u ->
  parse_url dbg hp hpo hd None (Some b) (utf8_lossy (ser u)) = POk u.
Print Assumptions C08_absolute_nonfile2.
(* non-vacuity: the host hypotheses have an instance (C02_host_hypotheses_inhabited); with it five inputs of the
   class (special with '\' and a default port, special without slashes, non-special with credentials and port,
   authority-less with the "/." marker, opaque) resolve to themselves against special, file, opaque bases *)
Example C08_absolute_nonfile_inhabited :
  (HostRT ex_hp ex_hp ex_hd /\ host_above ex_hp ex_hp ex_hd)
  /\ ex_abs "HTTP:\\u@h.x:80\a\..\b?q'#f" "http://other/dir/file?x#y" = true
  /\ ex_abs "http:h.x" "http://other/dir/file" = true
  /\ ex_abs "a://u:p@h.x:81/a/../b?q#f" "file:///c:/x" = true
  /\ ex_abs "a:/..//x" "about:blank" = true
  /\ ex_abs "mailto:x@y?subject=%41" "ws://h/" = true.
Proof. split; [exact ex_host_RT | exact abs_nonfile_inhabited]. Qed.

(* two classes in closed form, for every base and encoding override: opaque paths and authority-less '/'-led paths *)
Theorem C08_absolute_opaque : forall dbg hp hpo hd ovr b sch P q f, opaque_ok sch P q f ->
  parse_url dbg hp hpo hd ovr (Some b) (opaque_ser sch P q f) = POk (opaque_url sch P q f).
Proof. exact absolute_opaque. Qed.
Print Assumptions C08_absolute_opaque.
Theorem C08_absolute_noauth : forall dbg hp hpo hd ovr b sch segs last q f, C02_Path.noauth_ok sch segs last q f ->
  parse_url dbg hp hpo hd ovr (Some b) (noauth_ser sch (path_text segs last) q f)
  = POk (noauth_url sch (path_text segs last) q f).
Proof. exact absolute_noauth. Qed.
Print Assumptions C08_absolute_noauth.

(* 6. make_relative then join *)
Definition parsed dbg hp hpo hd (u : url) : Prop :=
  exists input, usv_list input /\ parse_url dbg hp hpo hd None None input = POk u.

(* the inverse law under HostOK, which url::Host cannot meet (see C08_absolute_statement); C08_relative_statement2
   is the form under HostOK2 *)
Definition C08_relative_statement : Prop :=
  forall dbg hp hpo hd, HostOK hp hpo hd ->
  forall b t r, parsed dbg hp hpo hd b -> parsed dbg hp hpo hd t ->
  mr_ok b t = true -> make_relative dbg b t = Some (Some r) ->
  join dbg hp hpo hd b r = POk t.
(* the statement under the satisfiable host hypothesis HostOK2 of C02 (Proofs/C02_Hist.v).  Proved for every base
   that is not a file URL: C08_relative_nonfile2 below; for file URLs outside Known_file_drive:
   C08_relative_parsed_all (9.5) *)
Definition C08_relative_statement2 : Prop :=
  forall dbg hp hpo hd, HostOK2 hp hpo hd ->
  forall b t r, parsed dbg hp hpo hd b -> parsed dbg hp hpo hd t ->
  mr_ok b t = true -> make_relative dbg b t = Some (Some r) ->
  join dbg hp hpo hd b r = POk t.

(* proved part: for a target with the same path (and, as make_relative requires, the same scheme, host and
   port) the reference is exactly ["?" query]["#" fragment] of the target - so its resolution against the base
   is the one C08_empty / C08_frag / C08_query describe (the base's query is kept when the target has none:
   class 41).  (A weaker result; the law itself: C08_relative_hier / C08_relative_canon below.) *)
Theorem C08_relative_partial : forall dbg b t sch h p q f,
  cannot_be_a_base b = Some false -> cannot_be_a_base t = Some false ->
  scheme b = Some sch -> scheme t = Some sch ->
  host_of b = Some h -> host_of t = Some h -> port b = port t ->
  path b = Some p -> path t = Some p -> extract_path_filename p <> None ->
  query dbg t = Some q -> fragment dbg t = Some f ->
  make_relative dbg b t = Some (Some (qf_text q f)).
Proof.
  intros dbg b t sch h p q f.
  intros Cb Ct Sb St Hb Ht Pp Pb Pt Hx Q F. unfold make_relative.
  rewrite Cb. cbn [bindo]. rewrite Ct. cbn [bindo orb]. rewrite Sb, St. cbn [bindo]. rewrite list_eqb_refl. cbn [negb].
  rewrite Hb, Ht. cbn [bindo].
  assert (mr_opt_host_eqb h h = true) as -> by (destruct h; [apply mr_host_eqb_refl | reflexivity]). cbn [negb].
  rewrite Pp, opt_eqb_refl. cbn [negb]. rewrite Pb, Pt. cbn [bindo].
  destruct (extract_path_filename p) as [[d fl]|]; [|contradiction]. cbn [bindo fst snd].
  rewrite mr_path_part_same. rewrite Q. cbn [bindo]. rewrite F. cbn [bindo].
  unfold qf_text, qf_qtext, qf_ftext. destruct q, f; cbn [app]; rewrite ?app_nil_r; reflexivity.
Qed.
Print Assumptions C08_relative_partial.

(* PROVED: the inverse law itself, for every scheme except "file", base and target with authority
   ("scheme://...") or without ("scheme:/path", no "/." marker), the base with or without query and fragment: same directory (reference = last segment),
   sub-directory, '../' steps, "/" at the root, "?q", "#f" and the empty reference - for both build
   configurations and arbitrary host functions.  Explicit form: *)
Theorem C08_relative_hier : forall dbg hp hpo hd pre se ue hs he hi po bsegs blast bq bf tsegs tlast tq tf r,
  rel_ok pre se bsegs blast tsegs tlast tq tf ->
  mr_ok (hier_url pre se ue hs he hi po bsegs blast bq bf) (hier_url pre se ue hs he hi po tsegs tlast tq tf) = true ->
  make_relative dbg (hier_url pre se ue hs he hi po bsegs blast bq bf)
                    (hier_url pre se ue hs he hi po tsegs tlast tq tf) = Some (Some r) ->
  join dbg hp hpo hd (hier_url pre se ue hs he hi po bsegs blast bq bf) r
  = POk (hier_url pre se ue hs he hi po tsegs tlast tq tf).
Proof. exact relative_hier. Qed.
Check C08_relative_hier : forall dbg hp hpo hd pre se ue hs he hi po bsegs blast bq bf tsegs tlast tq tf r,
  rel_ok pre se bsegs blast tsegs tlast tq tf ->
  mr_ok (hier_url pre se ue hs he hi po bsegs blast bq bf) (hier_url pre se ue hs he hi po tsegs tlast tq tf) = true ->
  make_relative dbg (hier_url pre se ue hs he hi po bsegs blast bq bf)
                    (hier_url pre se ue hs he hi po tsegs tlast tq tf) = Some (Some r) ->
  parse_url dbg hp hpo hd None (Some (hier_url pre se ue hs he hi po bsegs blast bq bf)) r
  = POk (hier_url pre se ue hs he hi po tsegs tlast tq tf).
Print Assumptions C08_relative_hier.

(* ... and on arbitrary records, the domain being one computable test (what is missing towards
   C08_relative_statement: that every parse result with authority passes hier_canon / rel_target_ok - C02's L1
   for URLs with authority; for authority-less ones C02_L1_noauth has it - and file URLs) *)
Theorem C08_relative_canon : forall dbg hp hpo hd b t r,
  rel_canon b t = true -> make_relative dbg b t = Some (Some r) ->
  join dbg hp hpo hd b r = POk t.
Proof.
  intros dbg hp hpo hd b t r.
  unfold rel_canon. intros H Hmr.
  apply andb_true_iff in H. destruct H as [H Hok]. apply andb_true_iff in H. destruct H as [H Hmain].
  apply andb_true_iff in H. destruct H as [H Htgt]. apply andb_true_iff in H. destruct H as [H Hbase].
  apply andb_true_iff in H. destruct H as [Hcb Hct].
  pose proof (mr_ok_pre b t Hok) as Epre.
  unfold hier_canon in Hcb, Hct. unfold rel_target_ok in Htgt.
  destruct (hier_parts b) as [[[[bsegs blast] bq] bf]|]; [|discriminate].
  destruct (hier_parts t) as [[[[tsegs tlast] tq] tf]|]; [|discriminate].
  apply andb_true_iff in Hcb. destruct Hcb as [Hcb Hbln]. apply andb_true_iff in Hcb. destruct Hcb as [Hcb Hbsn].
  apply andb_true_iff in Hct. destruct Hct as [Hct _]. apply andb_true_iff in Hct. destruct Hct as [Hct _].
  apply andb_true_iff in Htgt. destruct Htgt as [Htgt Hlen]. apply andb_true_iff in Htgt. destruct Htgt as [Htgt Hf].
  apply andb_true_iff in Htgt. destruct Htgt as [Htgt Hq]. apply andb_true_iff in Htgt. destruct Htgt as [Hts Htl].
  unfold main_eqb in Hmain.
  apply andb_true_iff in Hmain. destruct Hmain as [Hmain M7]. apply andb_true_iff in Hmain. destruct Hmain as [Hmain M6].
  apply andb_true_iff in Hmain. destruct Hmain as [Hmain M5]. apply andb_true_iff in Hmain. destruct Hmain as [Hmain M4].
  apply andb_true_iff in Hmain. destruct Hmain as [Hmain M3]. apply andb_true_iff in Hmain. destruct Hmain as [M1 M2].
  apply N.eqb_eq in M1, M2, M3, M4, M7. apply hi_eqb_true in M5. apply opt_eqb_true in M6.
  apply url_eqb_true in Hcb, Hct.
  rewrite M1, M2, M3, M4, M5, M6, <- Epre in Hct. clear M1 M2 M3 M4 M5 M6 M7 Epre.
  unfold rel_base_ok in Hbase.
  apply andb_true_iff in Hbase. destruct Hbase as [Hbase Hnf]. apply andb_true_iff in Hbase. destruct Hbase as [Hle Hss].
  apply negb_true_iff in Hnf. apply N.leb_le in Hle. pose proof (front_pre_of (scheme_end b) (u_pre b) Hle Hss) as Hfa. clear Hle Hss.
  set (st := b_st b) in *.
  assert (st = scheme_type_of (nfirstn (scheme_end b) (u_pre b))) as Est.
  { unfold st, b_st. rewrite Hcb at 1. rewrite hier_b_scheme by exact Hfa. reflexivity. }
  assert (nlen (ser t) = nlen (u_pre b ++ path_text tsegs tlast) + nlen (qf_qtext tq) + nlen (qf_ftext tf)) as Elen.
  { rewrite Hct at 1. unfold hier_url. cbn [ser]. unfold qf_text. rewrite !nlen_app. lia. }
  assert (rel_ok (u_pre b) (scheme_end b) bsegs blast tsegs tlast tq tf) as K.
  { constructor; try rewrite <- Est; try assumption.
    - apply opt_cleanb_spec. exact Hq.
    - apply opt_cleanb_spec. exact Hf.
    - destruct tq; cbn [qf_qs opt_le]; [lia | exact I].
    - destruct tf; cbn [qf_fs opt_le]; [lia | exact I]. }
  clearbody st.
  remember (u_pre b) as pre eqn:E1. remember (scheme_end b) as se eqn:E2. remember (username_end b) as ue eqn:E3.
  remember (host_start b) as hs eqn:E4. remember (host_end b) as he eqn:E5. remember (hosti b) as hi eqn:E6.
  remember (port b) as po eqn:E7.
  subst t. subst b.
  exact (relative_hier dbg hp hpo hd pre se ue hs he hi po bsegs blast bq bf tsegs tlast tq tf r K Hok Hmr).
Qed.
Check C08_relative_canon : forall dbg hp hpo hd b t r,
  (hier_canon b && hier_canon t && rel_base_ok b && rel_target_ok (b_st b) t && main_eqb b t && mr_ok b t) = true ->
  make_relative dbg b t = Some (Some r) ->
  parse_url dbg hp hpo hd None (Some b) r = POk t.
Print Assumptions C08_relative_canon.

(* ... and C08_relative_statement ITSELF (parse results, no canonical-form premise) for the class where C02 proved
   the canonical form of every parse result: non-special URLs without authority, "scheme:/path"
   (Properties.C02.noauth_input decides the class on the input text) *)
Theorem C08_relative_noauth : forall dbg hp hpo hd schb bsegs blast bq bf scht tsegs tlast tq tf r,
  C02_Path.noauth_ok schb bsegs blast bq bf -> C02_Path.noauth_ok scht tsegs tlast tq tf ->
  mr_ok (noauth_url schb (path_text bsegs blast) bq bf) (noauth_url scht (path_text tsegs tlast) tq tf) = true ->
  make_relative dbg (noauth_url schb (path_text bsegs blast) bq bf) (noauth_url scht (path_text tsegs tlast) tq tf)
  = Some (Some r) ->
  join dbg hp hpo hd (noauth_url schb (path_text bsegs blast) bq bf) r
  = POk (noauth_url scht (path_text tsegs tlast) tq tf).
Proof. exact relative_noauth. Qed.
Print Assumptions C08_relative_noauth.

Theorem C08_relative_noauth_parsed : forall dbg hp hpo hd bi ti b t r,
  usv_list bi -> usv_list ti ->
  Properties.C02.noauth_input bi = true -> Properties.C02.noauth_input ti = true ->
  parse_url dbg hp hpo hd None None bi = POk b -> parse_url dbg hp hpo hd None None ti = POk t ->
  mr_ok b t = true -> make_relative dbg b t = Some (Some r) ->
  join dbg hp hpo hd b r = POk t.
Proof.
  intros dbg hp hpo hd bi ti b t r Hub Hut Cb Ct Pb Pt Hok Hmr.
  destruct (Properties.C02.noauth_input_inv bi Cb) as (schb & remb & remb' & B1 & B2 & B3 & B4).
  destruct (Properties.C02.noauth_input_inv ti Ct) as (scht & remt & remt' & T1 & T2 & T3 & T4).
  exact (relative_noauth_parsed dbg hp hpo hd bi ti schb remb remb' scht remt remt' b t r
           Hub Hut B1 B2 B3 B4 T1 T2 T3 T4 Pb Pt Hok Hmr).
Qed.
Check C08_relative_noauth_parsed : forall dbg hp hpo hd bi ti b t r,
  usv_list bi -> usv_list ti ->
  Properties.C02.noauth_input bi = true -> Properties.C02.noauth_input ti = true ->
  parse_url dbg hp hpo hd None None bi = POk b -> parse_url dbg hp hpo hd None None ti = POk t ->
  mr_ok b t = true -> make_relative dbg b t = Some (Some r) ->
  parse_url dbg hp hpo hd None (Some b) r = POk t.
Print Assumptions C08_relative_noauth_parsed.
Example C08_relative_noauth_inhabited :
  Properties.C02.noauth_input (B "web+demo:/a/b/c?bq") = true /\ Properties.C02.noauth_input (B "web+demo:/a/d/e#f") = true
  /\ mr_holds "web+demo:/a/b/c?bq" "web+demo:/a/d/e#f" "../d/e#f" = true
  /\ Properties.C02.noauth_input (B "a:/x") = true /\ Properties.C02.noauth_input (B "a:/") = true
  /\ mr_holds "a:/x" "a:/" "/" = true.
Proof. vm_compute. repeat split. Qed.

(* PROVED: C08_relative_statement for ALL parse results of non-file schemes - base and target each parsed without a
   base from an input with a scheme other than "file" (nonfile_input; any of C02's classes: special, non-special
   with authority, authority-less, opaque - for an opaque record MR_ok is false, and so it is for two records of
   different classes).  No canonical-form premise: C02's L1 supplies the form, C02's L3 identifies the target with
   the record that has the base's stored offsets.  Hypotheses on the host functions as in C02 (HostRT + host_above;
   HostOK implies HostRT).
   Not covered, towards C08_relative_statement:
     (a) base and target both with scheme "file" (if only one is a file URL make_relative answers None -
         C08_relative_nonfile below asks for a non-file BASE only, as a premise on the record; file records outside
         Known_file_drive: C08_relative_parsed_all, 9.5);
     (b) records produced by join or by the setters rather than by a no-base parse - for those that are in one of
         C02's three hierarchical canonical forms see C08_relative_canon_forms below;
     (c) the statement assumes HostOK only, the theorem also host_above (HostOK does not say that displayed
         hosts are free of trailing spaces - a gap of the hypothesis, see Properties/C02.v section G). *)
Theorem C08_relative_parsed : forall dbg hp hpo hd, HostRT hp hpo hd -> host_above hp hpo hd ->
  forall bi ti b t r, usv_list bi -> usv_list ti ->
  nonfile_input bi = true -> nonfile_input ti = true ->
  parse_url dbg hp hpo hd None None bi = POk b -> parse_url dbg hp hpo hd None None ti = POk t ->
  mr_ok b t = true -> make_relative dbg b t = Some (Some r) ->
  join dbg hp hpo hd b r = POk t.
Proof. intros dbg hp hpo hd HRT HAb bi ti b t r. exact (relative_parsed dbg hp hpo hd HRT bi ti b t r HAb). Qed.
Check C08_relative_parsed : forall dbg hp hpo hd, HostRT hp hpo hd -> host_above hp hpo hd ->
  forall bi ti b t r, usv_list bi -> usv_list ti ->
  nonfile_input bi = true -> nonfile_input ti = true ->
  parse_url dbg hp hpo hd None None bi = POk b -> parse_url dbg hp hpo hd None None ti = POk t ->
  mr_ok b t = true -> make_relative dbg b t = Some (Some r) ->
  parse_url dbg hp hpo hd None (Some b) r = POk t.
Print Assumptions C08_relative_parsed.
Theorem C08_relative_parsed_HostOK : forall dbg hp hpo hd, HostOK hp hpo hd -> host_above hp hpo hd ->
  forall bi ti b t r, usv_list bi -> usv_list ti ->
  nonfile_input bi = true -> nonfile_input ti = true ->
  parse_url dbg hp hpo hd None None bi = POk b -> parse_url dbg hp hpo hd None None ti = POk t ->
  mr_ok b t = true -> make_relative dbg b t = Some (Some r) ->
  join dbg hp hpo hd b r = POk t.
Proof. intros dbg hp hpo hd HOK HAb bi ti b t r. exact (relative_parsed_HostOK dbg hp hpo hd bi ti b t r HOK HAb). Qed.
Print Assumptions C08_relative_parsed_HostOK.

(* THE STATEMENT ITSELF for every base that is not a file URL: the class premise read off the record (a parse
   result carries the scheme the parser read, Proofs/C17_Scheme.v; make_relative answers Some only for equal
   schemes, so nothing is asked of the target).  C08_relative_statement = this theorem without the premise
   st_is_file (b_st b) = false and with HostOK alone in place of HostRT + host_above. *)
Theorem C08_relative_nonfile : forall dbg hp hpo hd, HostRT hp hpo hd -> host_above hp hpo hd ->
  forall b t r, parsed dbg hp hpo hd b -> parsed dbg hp hpo hd t -> st_is_file (b_st b) = false ->
  mr_ok b t = true -> make_relative dbg b t = Some (Some r) ->
  join dbg hp hpo hd b r = POk t.
Proof.
  intros dbg hp hpo hd HRT HAb b t r (bi & Hub & Pb) (ti & Hut & Pt) Hnf Hok Hmr.
  apply (relative_parsed dbg hp hpo hd HRT bi ti b t r HAb Hub Hut); try assumption.
  - rewrite (parsed_nonfile_input dbg hp hpo hd bi b Pb). unfold b_st in Hnf. rewrite Hnf. reflexivity.
  - rewrite (parsed_nonfile_input dbg hp hpo hd ti t Pt), <- (make_relative_scheme dbg b t r Hmr).
    unfold b_st in Hnf. rewrite Hnf. reflexivity.
Qed.
Check C08_relative_nonfile : forall dbg hp hpo hd, HostRT hp hpo hd -> host_above hp hpo hd ->
  forall b t r,
  (exists input, usv_list input /\ parse_url dbg hp hpo hd None None input = POk b) ->
  (exists input, usv_list input /\ parse_url dbg hp hpo hd None None input = POk t) ->
  st_is_file (scheme_type_of (nfirstn (scheme_end b) (ser b))) = false ->
  mr_ok b t = true -> make_relative dbg b t = Some (Some r) ->
  parse_url dbg hp hpo hd None (Some b) r = POk t.
Print Assumptions C08_relative_nonfile.
(* likewise the absolute law for every parse result whose scheme is not file, against every base record *)
Theorem C08_absolute_parsed_nonfile : forall dbg hp hpo hd, HostRT hp hpo hd -> host_above hp hpo hd ->
  forall u b, parsed dbg hp hpo hd u -> st_is_file (b_st u) = false ->
  join dbg hp hpo hd b (utf8_lossy (ser u)) = POk u.
Proof.
  intros dbg hp hpo hd HRT HAb u b (input & Hu & Hp) Hnf.
  apply (absolute_nonfile dbg hp hpo hd HRT b input u HAb Hu); [|exact Hp].
  rewrite (parsed_nonfile_input dbg hp hpo hd input u Hp). unfold b_st in Hnf. rewrite Hnf. reflexivity.
Qed.
Print Assumptions C08_absolute_parsed_nonfile.

(* the three theorems above under HostOK2 (= HostRT /\ host_above /\ ip_clause), the hypothesis of the ...statement2
   forms, which the host model meets (C02_HostOK2_model); the versions under HostOK (..._HostOK) are vacuous
   for url::Host (C02_HostOK_old_unsat_model).  C08_relative_nonfile2 IS C08_relative_statement2 with the one extra
   premise that the base is not a file URL *)
Theorem C08_relative_parsed2 : forall dbg hp hpo hd, HostOK2 hp hpo hd ->
  forall bi ti b t r, usv_list bi -> usv_list ti ->
  nonfile_input bi = true -> nonfile_input ti = true ->
  parse_url dbg hp hpo hd None None bi = POk b -> parse_url dbg hp hpo hd None None ti = POk t ->
  mr_ok b t = true -> make_relative dbg b t = Some (Some r) ->
  join dbg hp hpo hd b r = POk t.
Proof. intros dbg hp hpo hd (HRT & HAb & _) bi ti b t r. exact (relative_parsed dbg hp hpo hd HRT bi ti b t r HAb). Qed.
Print Assumptions C08_relative_parsed2.
Theorem C08_relative_nonfile2 : forall dbg hp hpo hd, HostOK2 hp hpo hd ->
  forall b t r, parsed dbg hp hpo hd b -> parsed dbg hp hpo hd t -> st_is_file (b_st b) = false ->
  mr_ok b t = true -> make_relative dbg b t = Some (Some r) ->
  join dbg hp hpo hd b r = POk t.
Proof. intros dbg hp hpo hd (HRT & HAb & _). exact (C08_relative_nonfile dbg hp hpo hd HRT HAb). Qed.
Check C08_relative_nonfile2 : forall dbg hp hpo hd, HostOK2 hp hpo hd ->
  forall b t r,
  (exists input, usv_list input /\ parse_url dbg hp hpo hd None None input = POk b) ->
  (exists input, usv_list input /\ parse_url dbg hp hpo hd None None input = POk t) ->
  st_is_file (scheme_type_of (nfirstn (scheme_end b) (ser b))) = false ->
  mr_ok b t = true -> make_relative dbg b t = Some (Some r) ->
  parse_url dbg hp hpo hd None (Some b) r = POk t.
Print Assumptions C08_relative_nonfile2.
Theorem C08_absolute_parsed_nonfile2 : forall dbg hp hpo hd, HostOK2 hp hpo hd ->
  forall u b, parsed dbg hp hpo hd u -> st_is_file (b_st u) = false ->
  join dbg hp hpo hd b (utf8_lossy (ser u)) = POk u.
Proof. intros dbg hp hpo hd (HRT & HAb & _). exact (C08_absolute_parsed_nonfile dbg hp hpo hd HRT HAb). Qed.
Print Assumptions C08_absolute_parsed_nonfile2.
(* the premise of the three is met: the host model with the IDNA function idna_clean (Properties/C02.v) *)
Example C08_HostOK2_inhabited : exists hp hpo hd, HostOK2 hp hpo hd.
Proof. exact (ex_intro _ _ (ex_intro _ _ (ex_intro _ _ (proj2 Properties.C02.C02_HostOK2_inhabited)))). Qed.

(* ... and for records of ANY origin (parser, join, setters) that are in one of C02's three hierarchical canonical
   forms (Properties/C02.v: canon_noauth, canon_auth .. STNotSpecial, canon_special) *)
Theorem C08_relative_canon_forms : forall dbg hp hpo hd, HostRT hp hpo hd ->
  forall b t r,
  (Properties.C02.canon_noauth b \/ canon_auth hp hpo hd STNotSpecial b \/ canon_special hp hpo hd b) ->
  (Properties.C02.canon_noauth t \/ canon_auth hp hpo hd STNotSpecial t \/ canon_special hp hpo hd t) ->
  mr_ok b t = true -> make_relative dbg b t = Some (Some r) ->
  join dbg hp hpo hd b r = POk t.
Proof. intros dbg hp hpo hd HRT b t r. exact (relative_canon_forms dbg hp hpo hd b t r HRT). Qed.
Print Assumptions C08_relative_canon_forms.

(* the computable domain rel_canon of C08_relative_canon is COMPLETE on parse results: every pair of non-file
   parse results inside MR_ok passes the test (hier_canon, rel_base_ok, rel_target_ok, main_eqb all answer true) -
   C02's canonical forms imply C08's recognisers.  The length premise is rel_target_ok's bound on the whole
   target (C02's forms bound the stored offsets only). *)
Theorem C08_rel_canon_parsed : forall dbg hp hpo hd, HostRT hp hpo hd -> host_above hp hpo hd ->
  forall bi ti b t, usv_list bi -> usv_list ti ->
  nonfile_input bi = true -> nonfile_input ti = true ->
  parse_url dbg hp hpo hd None None bi = POk b -> parse_url dbg hp hpo hd None None ti = POk t ->
  mr_ok b t = true -> nlen (ser t) <= U32_MAX_P -> rel_canon b t = true.
Proof. intros dbg hp hpo hd HRT HAb bi ti b t. exact (parsed_rel_canon hp hpo hd HRT dbg bi ti b t HAb). Qed.
Check C08_rel_canon_parsed : forall dbg hp hpo hd, HostRT hp hpo hd -> host_above hp hpo hd ->
  forall bi ti b t, usv_list bi -> usv_list ti ->
  nonfile_input bi = true -> nonfile_input ti = true ->
  parse_url dbg hp hpo hd None None bi = POk b -> parse_url dbg hp hpo hd None None ti = POk t ->
  mr_ok b t = true -> nlen (ser t) <= U32_MAX_P ->
  (hier_canon b && hier_canon t && rel_base_ok b && rel_target_ok (b_st b) t && main_eqb b t && mr_ok b t) = true.
Print Assumptions C08_rel_canon_parsed.
(* per record: C02's canonical record with authority and a non-empty path passes the three recognisers *)
Theorem C08_canon_recognised : forall hp hpo hd st sch ui h pt segs last q f, st_is_file st = false ->
  auth_ok hp hpo hd st sch ui h pt (Some (segs, last)) q f ->
  let u := auth_url hd sch ui h pt (Some (segs, last)) q f in
  hier_canon u = true /\ rel_base_ok u = true /\ b_st u = st
  /\ ((st = STSpecialNotFile -> pth_ok_sp (Some (segs, last))) -> nlen (ser u) <= U32_MAX_P -> rel_target_ok st u = true).
Proof. exact auth_recognised. Qed.
Print Assumptions C08_canon_recognised.

(* non-vacuity: with the host functions of C02_host_hypotheses_inhabited, five pairs of inputs of the class
   ("HTTP:\\..\a\d\.\e" is read as http://../a/d/e) whose parse results are inside MR_ok, the reference
   make_relative answers, and its resolution *)
Example C08_relative_parsed_inhabited :
  (HostRT ex_hp ex_hp ex_hd /\ host_above ex_hp ex_hp ex_hd)
  /\ ex_mr "http://u@h.x:81/a/b/c?q" "HTTP:\\u@h.x:81\a\d\.\e#f" "../d/e#f" = true
  /\ ex_mr "https://h/a/b" "https://h/a/b?x" "?x" = true
  /\ ex_mr "a://u:p@h.x:81/x/y" "a://u:p@h.x:81/x/z\w?q" "z\w?q" = true
  /\ ex_mr "a:///x/y" "a:///" "../" = true
  /\ ex_mr "a:/x/y" "a:/z" "../z" = true.
Proof. split; [exact ex_host_RT | exact rel_parsed_inhabited]. Qed.

(* non-vacuity: pairs of parse results inside rel_canon (with the reference make_relative answers), and the
   explicit form of one pair *)
Example C08_relative_canon_inhabited :
  rel_canon_on "http://127.0.0.1:8080/test/" "http://127.0.0.1:8080/test" = true
  /\ mr_answer "http://127.0.0.1:8080/test/" "http://127.0.0.1:8080/test" "../test" = true
  /\ rel_canon_on "http://127.0.0.1:8080/test/bla/" "http://127.0.0.1:8080/test2/video" = true
  /\ mr_answer "http://127.0.0.1:8080/test/bla/" "http://127.0.0.1:8080/test2/video" "../../test2/video" = true
  /\ rel_canon_on "http://h/a/b.html?c=d" "http://h/a/b.html?e=f" = true
  /\ rel_canon_on "http://h/a/b?q#f" "http://h/a/b?q" = true
  /\ rel_canon_on "a://h/x/y" "a://h/x/z#f" = true
  /\ rel_canon_on "http://u:p@h:81/a/f" "http://u:p@h:81/" = true
  /\ mr_answer "http://u:p@h:81/a/f" "http://u:p@h:81/" "../" = true
  /\ rel_canon_on "ws://h/f?bq" "ws://h/" = true
  /\ mr_answer "ws://h/f?bq" "ws://h/" "/" = true
  /\ rel_canon_on "non-spec://h/a/b/c/d" "non-spec://h/a/x%20y/z\w?q=\#f" = true
  /\ mr_answer "non-spec://h/a/b/c/d" "non-spec://h/a/x%20y/z\w?q=\#f" "../../x%20y/z\w?q=\#f" = true
  /\ rel_canon_on "http://h/a/b" "http://h/a/b#f" = true
  /\ rel_canon_on "http://h/a/b#x" "http://h/a/b" = true
  /\ rel_canon_on "a:/x/y" "a:/x/z#f" = true /\ mr_answer "a:/x/y" "a:/x/z#f" "z#f" = true
  /\ rel_canon_on "web+demo:/a/b/c?bq" "web+demo:/a/d/" = true /\ mr_answer "web+demo:/a/b/c?bq" "web+demo:/a/d/" "../d/" = true
  /\ rel_canon_on "a:/x" "a:/" = true /\ mr_answer "a:/x" "a:/" "/" = true.
Proof. vm_compute. repeat split. Qed.
Example C08_relative_hier_inhabited :
  rel_ok (B "http://h") 4 [B "a"; B "b"] (B "f") [B "a"; B "c"] (B "g") (Some (B "q")) None
  /\ toy_parse "http://h/a/b/f" = POk (hier_url (B "http://h") 4 7 7 8 HI_Domain None [B "a"; B "b"] (B "f") None None)
  /\ toy_parse "http://h/a/c/g?q" = POk (hier_url (B "http://h") 4 7 7 8 HI_Domain None [B "a"; B "c"] (B "g") (Some (B "q")) None)
  /\ make_relative true (hier_url (B "http://h") 4 7 7 8 HI_Domain None [B "a"; B "b"] (B "f") None None)
                        (hier_url (B "http://h") 4 7 7 8 HI_Domain None [B "a"; B "c"] (B "g") (Some (B "q")) None)
     = Some (Some (B "../c/g?q")).
Proof.
  split; [|vm_compute; repeat split].
  constructor; try (vm_compute; reflexivity); try exact I.
  - left. exists (B "http"), (B "h"). split; reflexivity.
  - vm_compute. discriminate.
Qed.

(* every excluded class of MR_ok contains a pair of well-formed parse results on which make_relative answers
   Some(r) and join(b, r) <> t *)
Theorem C08_3_refuted : mr_witness 3 "ws://u@h/" "ws://h/b" = true /\ mr_witness 3 "https://-@h/" "https://h/" = true.
Proof. vm_compute. split; reflexivity. Qed.
Print Assumptions C08_3_refuted.
Theorem C08_4a_refuted : mr_witness 41 "http://h/?q" "http://h/" = true.
Proof. vm_compute. reflexivity. Qed.
Print Assumptions C08_4a_refuted.
Theorem C08_4b_refuted : mr_witness 42 "a://h/" "a://h/x:y" = true /\ mr_witness 42 "http://h/d/f" "http://h/d/x:y/z" = true.
Proof. vm_compute. split; reflexivity. Qed.
Print Assumptions C08_4b_refuted.
Theorem C08_4c_refuted :
  mr_witness 43 "http://h/a/f" "http://h/a/" = true /\ mr_witness 43 "http://h/a//b/f" "http://h/a/f" = true
  /\ mr_witness 43 "http://h/f" "http://h//x/f" = true /\ mr_witness 43 "a://h?q" "a://h" = true.
Proof. vm_compute. repeat split. Qed.
Print Assumptions C08_4c_refuted.
Theorem C08_4d_refuted : mr_witness 3 "a:/x" "a:///x" = true.
Proof. vm_compute. reflexivity. Qed.
Print Assumptions C08_4d_refuted.
(* class 45 (outside file URLs only the base's directory segments that '..' has to pop count) *)
Theorem C08_4e_refuted :
  mr_witness 45 "http://h/c:/a" "http://h/b" = true /\ mr_witness 45 "file:///c:/a/b" "file:///d:/x" = true
  /\ mr_witness 45 "non-spec:/c:/a" "non-spec:/b" = true /\ mr_witness 45 "a://h/x/c|/f" "a://h/x/y" = true.
Proof. vm_compute. repeat split. Qed.
Print Assumptions C08_4e_refuted.
(* "non-spec:/" -> "non-spec:/c:" is in class 42, not in class 45: the reference "c:" reads as a scheme *)
Theorem C08_4b_drive_refuted : mr_witness 42 "non-spec:/" "non-spec:/c:" = true.
Proof. vm_compute. reflexivity. Qed.
Print Assumptions C08_4b_drive_refuted.
(* ... and pairs with a drive-letter-shaped segment that class 45 does not count, hence inside MR_ok, satisfy the
   law (covered by C08_relative_parsed): a
   drive-letter-shaped segment in the common prefix, in the target only, as the base's file name, as a target file
   name behind a directory *)
Example C08_drive_inhabited :
  mr_holds "http://h/c:/a" "http://h/c:/b" "b" = true
  /\ mr_holds "http://h/a/b" "http://h/c:/d" "../c:/d" = true
  /\ mr_holds "a://h/a/c:" "a://h/a/x" "x" = true
  /\ mr_holds "non-spec:/a/b" "non-spec:/a/d/c|" "d/c|" = true
  /\ mr_holds "ws://h/c:/d:/e" "ws://h/c:/d:/e/f:" "e/f:" = true.
Proof. vm_compute. repeat split. Qed.
Theorem C08_dots_refuted : match toy_parse "a:/y" with POk b => mr_refutes 46 b t_dots | _ => false end = true.
Proof. vm_compute. reflexivity. Qed.
Print Assumptions C08_dots_refuted.
Theorem C08_2_fixed :
  match toy_parse "web+demo:/", toy_parse "web+demo:'<C|" with
  | POk b, POk t => match make_relative true b t with Some None => true | _ => false end
  | _, _ => false
  end = true.
Proof. vm_compute. reflexivity. Qed.
Print Assumptions C08_2_fixed.

(* 7. both laws for the records of C02's histories (ReachC4) *)
(* ReachC4 (Proofs/C02_Reach5.v, the quantifier of C02_reach_partial4): parse results of non-file schemes (with or
   without a base-less override), joins with tail references, every mutator of canon_op4 (all setters of the API and
   of quirks except path_segments_mut sessions on hierarchical records) outside the known step classes,
   query_pairs_mut sessions.  Host functions under HostOK2 (satisfiable: C08_HostOK2_inhabited) + host_nonempty
   (the host parsers refuse the empty string; true of the host model, C02_Reach4.host_nonempty_model). *)
Theorem C08_absolute_reach : forall dbg hp hpo hd, HostOK2 hp hpo hd -> host_nonempty hp hpo ->
  forall u b, ReachC4 dbg hp hpo hd u -> join dbg hp hpo hd b (utf8_lossy (ser u)) = POk u.
Proof. exact absolute_reach. Qed.
Check C08_absolute_reach : forall dbg hp hpo hd, HostOK2 hp hpo hd -> host_nonempty hp hpo ->
  forall u b, ReachC4 dbg hp hpo hd u -> parse_url dbg hp hpo hd None (Some b) (utf8_lossy (ser u)) = POk u.
Print Assumptions C08_absolute_reach.
Theorem C08_relative_reach : forall dbg hp hpo hd, HostOK2 hp hpo hd -> host_nonempty hp hpo ->
  forall b t r, ReachC4 dbg hp hpo hd b -> ReachC4 dbg hp hpo hd t ->
  mr_ok b t = true -> make_relative dbg b t = Some (Some r) ->
  join dbg hp hpo hd b r = POk t.
Proof. exact relative_reach. Qed.
Check C08_relative_reach : forall dbg hp hpo hd, HostOK2 hp hpo hd -> host_nonempty hp hpo ->
  forall b t r, ReachC4 dbg hp hpo hd b -> ReachC4 dbg hp hpo hd t ->
  mr_ok b t = true -> make_relative dbg b t = Some (Some r) ->
  parse_url dbg hp hpo hd None (Some b) r = POk t.
Print Assumptions C08_relative_reach.
(* the same for Canon records of any origin (C02_Canon.Canon: one of C02's four canonical forms; opaque records are
   outside MR_ok) - HostOK2 only *)
Theorem C08_absolute_Canon : forall dbg hp hpo hd, HostOK2 hp hpo hd ->
  forall u b, Canon hp hpo hd u -> join dbg hp hpo hd b (utf8_lossy (ser u)) = POk u.
Proof. exact absolute_Canon. Qed.
Print Assumptions C08_absolute_Canon.
Theorem C08_relative_Canon : forall dbg hp hpo hd, HostOK2 hp hpo hd ->
  forall b t r, Canon hp hpo hd b -> Canon hp hpo hd t ->
  mr_ok b t = true -> make_relative dbg b t = Some (Some r) ->
  join dbg hp hpo hd b r = POk t.
Proof. exact relative_Canon. Qed.
Print Assumptions C08_relative_Canon.
(* on the parser model linked with the host model Model/Host.v: relative to IdnaOK idna only *)
Theorem C08_relative_reach_model : forall dbg idna, IdnaOK idna -> forall b t r,
  ReachC4 dbg (host_parse idna) host_parse_opaque host_display b ->
  ReachC4 dbg (host_parse idna) host_parse_opaque host_display t ->
  mr_ok b t = true -> make_relative dbg b t = Some (Some r) ->
  parse_url dbg (host_parse idna) host_parse_opaque host_display None (Some b) r = POk t.
Proof. exact relative_reach_model. Qed.
Print Assumptions C08_relative_reach_model.
Theorem C08_absolute_reach_model : forall dbg idna, IdnaOK idna -> forall u b,
  ReachC4 dbg (host_parse idna) host_parse_opaque host_display u ->
  parse_url dbg (host_parse idna) host_parse_opaque host_display None (Some b) (utf8_lossy (ser u)) = POk u.
Proof. exact absolute_reach_model. Qed.
Print Assumptions C08_absolute_reach_model.
(* non-vacuity, host model with idna_clean: base a://u:pw@h.x:81/p?q -> quirks hostname("example.org") ->
   set_path("/a/b/c"); target a://u:pw@example.org:81/a/d/e -> set_fragment("f"); inside MR_ok, make_relative answers
   "../d/e#f", the join returns the target; the base's serialization resolves to itself against the target *)
Example C08_reach_inhabited :
  match m_hist "a://u:pw@h.x:81/p?q" [OQHostname (B "example.org"); OSetPath (B "/a/b/c")],
        m_hist "a://u:pw@example.org:81/a/d/e" [OSetFragment (Some (B "f"))] with
  | Some b, Some t =>
      list_eqb (ser b) (B "a://u:pw@example.org:81/a/b/c?q") && list_eqb (ser t) (B "a://u:pw@example.org:81/a/d/e#f")
      && mr_ok b t
      && match make_relative true b t with
         | Some (Some r) => list_eqb r (B "../d/e#f")
                            && match m_join b r with POk v => url_eqb v t | _ => false end
         | _ => false
         end
      && match m_join t (utf8_lossy (ser b)) with POk v => url_eqb v b | _ => false end
  | _, _ => false
  end = true.
Proof. exact reach_mr_example. Qed.

(* non-vacuity of the inverse law: (base, target, reference) with both parse results well-formed and inside MR_ok,
   make_relative answers the reference and the join returns the target *)
Example C08_inhabited :
  mr_holds "http://127.0.0.1:8080/test/" "http://127.0.0.1:8080/test" "../test" = true
  /\ mr_holds "http://127.0.0.1:8080/test/bla/" "http://127.0.0.1:8080/test2/video" "../../test2/video" = true
  /\ mr_holds "http://h/a/b.html?c=d" "http://h/a/b.html?e=f" "?e=f" = true
  /\ mr_holds "http://h/a/b?q#f" "http://h/a/b?q" "?q" = true
  /\ mr_holds "a:/x/y" "a:/x/z#f" "z#f" = true
  /\ mr_holds "file:///tmp/a" "file:///tmp/b/c/" "b/c/" = true
  /\ mr_holds "http://u:p@h:81/a/f" "http://u:p@h:81/" "../" = true.
Proof. vm_compute. repeat split. Qed.

(* 7b. C08_absolute_statement2 is FALSE as stated; the statement over Reachable4 *)
(* Reachable2 misses the class F-C07-8 / Known_F_C02_10 (C02_statement_refuted): a://:pw@h/p -> quirks::set_host("")
   = a://:pw@/p is inside Reachable2, and resolving that text against any base answers Err(EmptyHost) - on the parser
   model linked with the host model, of which HostOK2 holds.  (Replay on the crate: known finding F-C07-8.) *)
Theorem C08_absolute_statement2_refuted : ~ C08_absolute_statement2.
Proof. exact absolute_statement2_refuted. Qed.
Check C08_absolute_statement2_refuted : ~ (forall dbg hp hpo hd, HostOK2 hp hpo hd ->
  forall u b, Reachable2 dbg hp hpo hd u -> Reachable2 dbg hp hpo hd b ->
  parse_url dbg hp hpo hd None (Some b) (utf8_lossy (ser u)) = POk u).
Print Assumptions C08_absolute_statement2_refuted.
Theorem C08_absolute_F_C07_8_witness :
  match parse_url true mhp host_parse_opaque host_display None (Some w10_u0) (utf8_lossy (ser w10_u1)) with
  | PErr EmptyHost => true | _ => false end = true
  /\ list_eqb (ser w10_u1) (B "a://:pw@/p") = true.
Proof. split; [exact w10_join | exact (proj1 (proj2 (proj2 (proj2 (proj2 (proj2 w10_facts))))))]. Qed.
Print Assumptions C08_absolute_F_C07_8_witness.
(* the statement over the quantifier of C02_statement4: Reachable4 (every step outside known_step3 =
   known_step2 + Known_F_C02_10; query_pairs_mut sessions included) with host_nonempty.  Neither proved nor refuted
   in full; proved part: C08_absolute_reach (the histories ReachC4, inside Reachable4 by
   C02_reach_partial4_in_statement); not covered by it: file URLs (for the histories ReachC7, file records included,
   the law is C08_absolute_reach7 in section 9), joins through the path arms, path_segments_mut sessions on
   hierarchical records *)
Definition C08_absolute_statement4 : Prop :=
  forall dbg hp hpo hd, HostOK2 hp hpo hd -> host_nonempty hp hpo ->
  forall u b, Reachable4 dbg hp hpo hd u -> Reachable4 dbg hp hpo hd b ->
  join dbg hp hpo hd b (utf8_lossy (ser u)) = POk u.

(* 4b. containment for file bases, strong form outside the drive-letter branches *)
(* file_shape b (computable): the record has the layout parse_file gives every file URL - "file://" in front,
   scheme_end 4, no credentials (username_end = host_start = 7), no port, path_start = host_end, and host_end = 7
   when there is no host.  file_ref_plain b input (computable): the trimmed reference does not start with a
   Windows-drive-letter segment ("C:" / "C|" followed by '/', '\', '?', '#' or the end), neither at its start nor
   behind one leading slash, and - for a reference with one leading slash - the first path segment of the base is not
   a normalized drive letter "C:".  Outside (the drive-letter branches of parse_file) the host may be dropped:
   C08_1_refuted, covered in the weak form by C08_contain_file. *)
Theorem C08_contain_file_front : forall dbg hp hpo hd b input u',
  wf_b b = true -> has_authority_b b = true -> st_is_file (b_st b) = true -> file_shape b = true ->
  usv_list input -> contain_pre b input = true -> file_ref_plain b input = true ->
  join dbg hp hpo hd b input = POk u' ->
  wf_b u' = true /\ same_front dbg b u' /\ same_main b u' /\ agree_pre (path_start b) (ser b) (ser u').
Proof. exact contain_file_front. Qed.
Check C08_contain_file_front : forall dbg hp hpo hd b input u',
  wf_b b = true -> has_authority_b b = true -> st_is_file (b_st b) = true -> file_shape b = true ->
  usv_list input -> contain_pre b input = true -> file_ref_plain b input = true ->
  parse_url dbg hp hpo hd None (Some b) input = POk u' ->
  wf_b u' = true /\ same_front dbg b u'
  /\ (scheme_end u' = scheme_end b /\ username_end u' = username_end b /\ host_start u' = host_start b
      /\ host_end u' = host_end b /\ hosti u' = hosti b /\ port u' = port b /\ path_start u' = path_start b)
  /\ nfirstn (path_start b) (ser u') = nfirstn (path_start b) (ser b).
Print Assumptions C08_contain_file_front.
(* non-vacuity: seven (base, reference) pairs inside the premises - relative and one-slash references, '\', dot
   segments, a tab, bases with and without host, a drive-letter base with a relative reference - with the result;
   two pairs that meet every premise except file_ref_plain and lose the host *)
Example C08_contain_file_front_inhabited :
  file_front_case "file://host/dir/f?q#f" "x/y?z" "file://host/dir/x/y?z" = true
  /\ file_front_case "file://host/dir/f" "/x/../y" "file://host/y" = true
  /\ file_front_case "file://host/dir/f" "\x" "file://host/x" = true
  /\ file_front_case "file://host/dir/f" "../../.." "file://host/" = true
  /\ file_front_case "file:///dir/f" "/x" "file:///x" = true
  /\ file_front_case "file:///c:/dir/f" "../../x" "file:///c:/x" = true
  /\ file_front_case "file://host/dir/f" "	.//x" "file://host/dir//x" = true
  /\ file_front_excluded "file://host/dir/f" "/c:/x" = true
  /\ file_front_excluded "file://host/dir/f" "C|" = true.
Proof. vm_compute. repeat split. Qed.

(* 8. the STANDARD-side reading of the simple references and of containment *)
(* The Standard = the transcription Spec/Whatwg.v of the basic URL parser (spec_basic_url_parse shp input (Some sb),
   shp the host parser); spec_clean input = the Standard's cleaning (C0/space trimmed, tab/LF/CR removed) =
   ref_text input (C01_eq_cleaning).  related dbg shs b sb (Proofs/C01_EqRef.v) ties a model record to a record of
   the Standard: well-formed, the ten API strings agree, same serialization; full_base adds the two facts every
   parse result has (lower-case scheme and '/'-free segments; a special non-file record has a host).  Every pair
   (model parse result, Standard parse result) of an input outside known_c01_v1 (Known_C01 with the whole file scheme
   as class 1) is a full_base pair, and so is every
   pair of results of resolving a reference against such a pair (C01_statement_all). *)
From RU Require Import Model.KnownC01 Spec.Whatwg Spec.WhatwgHostParse Proofs.C09_Host
  Proofs.C01_EqRun Proofs.C01_EqRef Proofs.C01_EqRelArms Proofs.C01_EqAsm Proofs.C01_EqShape Proofs.C08_Std.

(* 8.1 on the Standard alone: the empty reference, '#f', '?q' *)
Theorem C08_std_simple : forall shp input sb, spec_valid sb ->
  (spec_clean input = [] -> has_opaque_path sb = false ->
     spec_basic_url_parse shp input (Some sb) = BDone (Whatwg.set_fragment sb None))
  /\ (forall f, spec_clean input = 35 :: f ->
        spec_basic_url_parse shp input (Some sb) = BDone (Whatwg.set_fragment sb (Some (upe in_fragment_set f))))
  /\ (forall q, spec_clean input = 63 :: q -> has_opaque_path sb = false ->
        spec_basic_url_parse shp input (Some sb)
        = BDone (Whatwg.set_fragment (Whatwg.set_query sb (Some (upe (qset_of sb) (C01_EqRun.before_hash q))))
                                     (option_map (upe in_fragment_set) (C01_EqRun.after_hash q)))).
Proof. exact std_simple. Qed.
Print Assumptions C08_std_simple.

(* 8.2 on the Standard alone: containment.  Base record not opaque, scheme not "file"; reference without scheme and
   without two leading slash characters ('\' counting only when the base's scheme is special): the Standard never
   fails and scheme, username, password, host and port of the result are the base's - for every host parser *)
Theorem C08_std_contain : forall shp input sb, spec_valid sb -> has_opaque_path sb = false ->
  list_eqb (su_scheme sb) str_file = false -> std_contain_pre sb (spec_clean input) = true ->
  exists su, spec_basic_url_parse shp input (Some sb) = BDone su /\ spec_same_front sb su.
Proof. exact std_contain. Qed.
Check C08_std_contain : forall shp input sb,
  ((has_opaque_path sb = true -> su_host sb = None /\ su_username sb = [] /\ su_password sb = [] /\ su_port sb = None)
   /\ (su_scheme sb = str_file -> su_username sb = [] /\ su_password sb = [] /\ su_port sb = None)) ->
  has_opaque_path sb = false -> list_eqb (su_scheme sb) str_file = false ->
  (negb (has_scheme_b (spec_clean input))
   && negb (two_leading_slashes (is_special_scheme (su_scheme sb)) (spec_clean input))) = true ->
  exists su, spec_basic_url_parse shp input (Some sb) = BDone su
    /\ su_scheme su = su_scheme sb /\ su_username su = su_username sb /\ su_password su = su_password sb
    /\ su_host su = su_host sb /\ su_port su = su_port sb.
Print Assumptions C08_std_contain.
(* the model's premise contain_pre is the Standard's on a related pair *)
Theorem C08_contain_pre_std : forall dbg shs b sb input, related dbg shs b sb ->
  contain_pre b input = std_contain_pre sb (spec_clean input).
Proof. exact contain_pre_std. Qed.
Print Assumptions C08_contain_pre_std.

(* 8.3 the crate's join agrees with the Standard's: for a full_base pair (b, sb), sb not opaque and not a file URL,
   every reference inside contain_pre and outside Known_C01 (as known_c01_v1 = 0, whose class 1 is the whole file
   scheme; of the classes only 2 can occur here: a ".." meeting a
   drive-letter-shaped segment): the Standard succeeds with a record su that keeps the front of sb, and the model
   answers Overflow (then su's href is beyond u32::MAX bytes) or a record u' that is related to su (same ten API
   strings, same serialization), forms a full_base pair with it again, and is contained in the sense of C08_contain.
   Host functions abstract under C01's one-string hypothesis host_hyp3 *)
Theorem C08_std_contain_agree : forall dbg hp hpo hd shp shs b sb input,
  usv_list input -> full_base dbg shs b sb ->
  has_opaque_path sb = false -> list_eqb (su_scheme sb) str_file = false ->
  contain_pre b input = true -> known_c01_v1 (Some b) input = 0 ->
  host_hyp3 hp hpo hd shp shs (Some sb) input ->
  exists su, spec_basic_url_parse shp input (Some sb) = BDone su /\ spec_same_front sb su
    /\ ((join dbg hp hpo hd b input = PErr Overflow /\ U32_MAX_P < nlen (get_href shs su))
        \/ exists u', join dbg hp hpo hd b input = POk u' /\ related dbg shs u' su
                      /\ full_base dbg shs u' su /\ contained dbg b u').
Proof. exact std_contain_agree. Qed.
Print Assumptions C08_std_contain_agree.
(* ... with the host model against the Standard's host parser: relative to IdnaOK idna only *)
Theorem C08_std_contain_agree_model : forall dbg idna, IdnaOK idna -> forall b sb input,
  usv_list input -> full_base dbg spec_host_serializer b sb ->
  has_opaque_path sb = false -> list_eqb (su_scheme sb) str_file = false ->
  contain_pre b input = true -> known_c01_v1 (Some b) input = 0 ->
  exists su, spec_basic_url_parse (spec_host_parser idna) input (Some sb) = BDone su /\ spec_same_front sb su
    /\ ((parse_url dbg (host_parse idna) host_parse_opaque host_display None (Some b) input = PErr Overflow
         /\ U32_MAX_P < nlen (get_href spec_host_serializer su))
        \/ exists u', parse_url dbg (host_parse idna) host_parse_opaque host_display None (Some b) input = POk u'
                      /\ related dbg spec_host_serializer u' su
                      /\ full_base dbg spec_host_serializer u' su /\ contained dbg b u').
Proof.
  intros dbg idna.
  intros HI b sb input Hu Hfb Hop Hnf Hcp Hk.
  apply std_contain_agree; try assumption.
  apply host_hyp3_model; [exact (idna_out idna HI) | exact Hu].
Qed.
Print Assumptions C08_std_contain_agree_model.
(* full_base pairs exist: every input outside known_c01_v1 (Known_C01 with the whole file scheme as class 1), parsed
   without a base by the model and by the Standard *)
Theorem C08_parsed_full_base : forall dbg idna, IdnaOK idna -> forall input u su,
  usv_list input -> known_c01_v1 None input = 0 ->
  parse_url dbg (host_parse idna) host_parse_opaque host_display None None input = POk u ->
  spec_basic_url_parse (spec_host_parser idna) input None = BDone su ->
  full_base dbg spec_host_serializer u su.
Proof. exact parsed_full_base. Qed.
Print Assumptions C08_parsed_full_base.
(* the empty reference in closed form on both sides ('#f' and '?q': C01_eq_fragment_only / C01_eq_query_only in
   Properties/C01.v give the related results; their closed forms are C08_frag / C08_query and C08_std_simple) *)
Theorem C08_std_empty_agree : forall dbg hp hpo hd shp shs b sb input,
  related dbg shs b sb -> has_opaque_path sb = false -> spec_clean input = [] ->
  spec_basic_url_parse shp input (Some sb) = BDone (Whatwg.set_fragment sb None)
  /\ join dbg hp hpo hd b input = POk (without_fragment b)
  /\ related dbg shs (without_fragment b) (Whatwg.set_fragment sb None).
Proof. exact std_empty_agree. Qed.
Print Assumptions C08_std_empty_agree.
(* non-vacuity: IdnaOK has an instance; against the parse results of http://u:p@example.com:81/a/b/c?q#f and of
   web+x://h.x/a/b the listed references meet contain_pre, are outside Known_C01, both parsers succeed, the Standard's
   result keeps scheme and credentials and its href is the model's serialization *)
Example C08_std_contain_inhabited :
  IdnaOK ex_idna_clean
  /\ std_case (B "http://u:p@example.com:81/a/b/c?q#f")
       [B ""; B "#x y"; B "?z#w"; B "/x/../y"; B "\x"; B "x/./y?q"; B "..\..\z"; B " /	x"] = true
  /\ std_case (B "web+x://h.x/a/b") [B ""; B "#x"; B "?z"; B "/x"; B "\\h"; B "/\h"; B "../../x"; B "c/d#f"] = true.
Proof. split; [exact ex_idna_clean_ok | vm_compute; split; reflexivity]. Qed.

(* 9. both laws for the records of ReachC7 histories - FILE records included *)
(* ReachC7 (Proofs/C02_Reach8.v, the quantifier of C02_reach_partial7): EVERY parse result without a base outside
   Known_file_drive (file inputs included), on file records set_fragment / set_query / quirks search / hash,
   query_pairs_mut sessions and tail joins, everything of ReachC6 from the non-file records.  Every such record is
   CanonF = Canon (four non-file canonical forms) or FileCanon (C02's fifth form: "file://" [host] path [?q][#f], the
   segments canonical for a special scheme and not beginning like a drive letter).  Host functions under HostOK2 +
   host_nonempty + host_no_wdl (the display of a parsed host is no drive letter) - all three proved of the host model
   under IdnaOK (the ..._model forms). *)
From RU Require Import Proofs.C02_File Proofs.C02_FileCanon Proofs.C02_FileParse Proofs.C02_Reach8
  Proofs.C08_AbsFile Proofs.C08_RelFile Proofs.C08_RelFileCanon.

(* 9.1 the absolute law: a fixpoint's text "file://..." has the shape abs_shape (C08_absolute_shape_any with sch = "file"),
   so the base is never consulted *)
Theorem C08_absolute_reach7 : forall dbg hp hpo hd, HostOK2 hp hpo hd -> host_nonempty hp hpo -> host_no_wdl hp hd ->
  forall u b, ReachC7 dbg hp hpo hd u -> join dbg hp hpo hd b (utf8_lossy (ser u)) = POk u.
Proof. intros dbg hp hpo hd HOK HNE HW u b. exact (absolute_reach7 dbg hp hpo hd HOK HNE HW u b). Qed.
Check C08_absolute_reach7 : forall dbg hp hpo hd, HostOK2 hp hpo hd -> host_nonempty hp hpo -> host_no_wdl hp hd ->
  forall u b, ReachC7 dbg hp hpo hd u -> parse_url dbg hp hpo hd None (Some b) (utf8_lossy (ser u)) = POk u.
Print Assumptions C08_absolute_reach7.
Theorem C08_absolute_CanonF : forall dbg hp hpo hd, HostOK2 hp hpo hd ->
  forall u b, Canon hp hpo hd u \/ FileCanon hp hd u -> join dbg hp hpo hd b (utf8_lossy (ser u)) = POk u.
Proof. exact absolute_CanonF. Qed.
Print Assumptions C08_absolute_CanonF.
Theorem C08_absolute_reach7_model : forall dbg idna, IdnaOK idna -> forall u b,
  ReachC7 dbg (host_parse idna) host_parse_opaque host_display u ->
  parse_url dbg (host_parse idna) host_parse_opaque host_display None (Some b) (utf8_lossy (ser u)) = POk u.
Proof. exact absolute_reach7_model. Qed.
Print Assumptions C08_absolute_reach7_model.

(* 9.2 the file path state on the text make_relative emits: from  pre "/" common "/" ra "/"  the input
   k x "../" ++ rb "/" ... ++ tl ++ rest  (k = |ra|; ra free of '/' and of drive-letter shapes; common ++ rb and tl canonical
   file segments, the first not empty) leaves  pre "/" common "/" rb "/" tl  - no drive-letter arm fires, the collapse of
   leading slashes is the identity, the host flag is kept *)
Theorem C08_file_path_rel : forall pre dbg common ra rb tl rest hh,
  forallb no_slash ra = true -> forallb not_wdl_seg ra = true ->
  forallb fseg_ok (common ++ rb) = true -> fseg_ok tl = true ->
  match common ++ rb with [] => True | s :: _ => s <> [] end -> rest_qh rest ->
  parse_path_loop dbg CUrlParser STFile (nlen pre) (dots_text ra ++ segs_text rb ++ tl ++ rest)
    (Bs pre (common ++ ra)) (nlen (Bs pre (common ++ ra))) [] hh
  = POk (Bs pre (common ++ rb) ++ tl, hh, rest).
Proof. exact loop_rel_f. Qed.
Print Assumptions C08_file_path_rel.

(* 9.3 the inverse law on explicit records  "file://" R "/" seg "/" ... "/" last [?q][#f]  (hier_url, any stored offsets
   behind scheme_end = 4): target canonical (rel_ok_f: fseg_ok segments, SPECIAL_QUERY-clean query, clean fragment),
   base segments merely free of '/'.  The one reference that leaves the relative arm of parse_file - "/" from
   file://h/name to file://h/ , through the one-slash arm, which builds a NEW record from host_str - is a premise here
   and is discharged for canonical records in C08_relative_FileCanon *)
Theorem C08_relative_file_hier : forall dbg hp hpo hd pre ue hs he hi po bsegs blast bq bf tsegs tlast tq tf r,
  rel_ok_f pre bsegs blast tsegs tlast tq tf ->
  (bsegs = [] -> tsegs = [] -> tlast = [] -> blast <> [] ->
   join dbg hp hpo hd (hier_url pre 4 ue hs he hi po bsegs blast bq bf) (47 :: qf_text tq tf)
   = POk (hier_url pre 4 ue hs he hi po tsegs tlast tq tf)) ->
  mr_ok (hier_url pre 4 ue hs he hi po bsegs blast bq bf) (hier_url pre 4 ue hs he hi po tsegs tlast tq tf) = true ->
  make_relative dbg (hier_url pre 4 ue hs he hi po bsegs blast bq bf)
                    (hier_url pre 4 ue hs he hi po tsegs tlast tq tf) = Some (Some r) ->
  join dbg hp hpo hd (hier_url pre 4 ue hs he hi po bsegs blast bq bf) r
  = POk (hier_url pre 4 ue hs he hi po tsegs tlast tq tf).
Proof. exact relative_file_hier. Qed.
Print Assumptions C08_relative_file_hier.
(* ... and the root reference for canonical file records *)
Theorem C08_join_root_file : forall dbg hp hpo hd ho blast bq bf tq tf,
  fhost_ok hp hd ho -> no_slash blast = true -> is_normalized_wdl blast = false ->
  opt_clean T_SPECIAL_QUERY tq -> opt_clean T_FRAGMENT tf ->
  opt_le (qf_qs (nlen (file_front hd ho ++ [47])) tq) U32_MAX_P ->
  opt_le (qf_fs (nlen (file_front hd ho ++ [47])) tq tf) U32_MAX_P ->
  join dbg hp hpo hd (file_curl hd ho (path_text [] blast) bq bf) (47 :: qf_text tq tf)
  = POk (file_curl hd ho (path_text [] []) tq tf).
Proof. exact join_root_file. Qed.
Print Assumptions C08_join_root_file.

(* 9.4 the inverse law for two canonical file records (no hypothesis on the host functions at all: the host of a
   FileCanon record carries its own round-trip clause), for two records of the five forms, for two ReachC7 records *)
Theorem C08_relative_FileCanon : forall dbg hp hpo hd b t r, FileCanon hp hd b -> FileCanon hp hd t ->
  mr_ok b t = true -> make_relative dbg b t = Some (Some r) ->
  join dbg hp hpo hd b r = POk t.
Proof. exact relative_FileCanon. Qed.
Print Assumptions C08_relative_FileCanon.
Theorem C08_relative_CanonF : forall dbg hp hpo hd, HostOK2 hp hpo hd -> forall b t r,
  Canon hp hpo hd b \/ FileCanon hp hd b -> Canon hp hpo hd t \/ FileCanon hp hd t ->
  mr_ok b t = true -> make_relative dbg b t = Some (Some r) ->
  join dbg hp hpo hd b r = POk t.
Proof. exact relative_CanonF. Qed.
Print Assumptions C08_relative_CanonF.
Theorem C08_relative_reach7 : forall dbg hp hpo hd, HostOK2 hp hpo hd -> host_nonempty hp hpo -> host_no_wdl hp hd ->
  forall b t r, ReachC7 dbg hp hpo hd b -> ReachC7 dbg hp hpo hd t ->
  mr_ok b t = true -> make_relative dbg b t = Some (Some r) ->
  join dbg hp hpo hd b r = POk t.
Proof. intros dbg hp hpo hd HOK HNE HW b t r. exact (relative_reach7 dbg hp hpo hd HOK HNE HW b t r). Qed.
Check C08_relative_reach7 : forall dbg hp hpo hd, HostOK2 hp hpo hd -> host_nonempty hp hpo -> host_no_wdl hp hd ->
  forall b t r, ReachC7 dbg hp hpo hd b -> ReachC7 dbg hp hpo hd t ->
  mr_ok b t = true -> make_relative dbg b t = Some (Some r) ->
  parse_url dbg hp hpo hd None (Some b) r = POk t.
Print Assumptions C08_relative_reach7.
Theorem C08_relative_reach7_model : forall dbg idna, IdnaOK idna -> forall b t r,
  ReachC7 dbg (host_parse idna) host_parse_opaque host_display b ->
  ReachC7 dbg (host_parse idna) host_parse_opaque host_display t ->
  mr_ok b t = true -> make_relative dbg b t = Some (Some r) ->
  parse_url dbg (host_parse idna) host_parse_opaque host_display None (Some b) r = POk t.
Proof. exact relative_reach7_model. Qed.
Print Assumptions C08_relative_reach7_model.

(* 9.5 C08_relative_statement2 / the absolute law for ALL parse results - file URLs included - with the ONE premise on the
   records that they are outside Known_file_drive (no path segment begins like a drive letter; for non-file records the
   premise is void), under HostOK2 + host_nonempty + host_no_wdl.  Not covered, towards
   C08_relative_statement2: file records with a segment that begins like a drive letter ("c:", "c|", also "c:x" - MR_ok's
   class 45 excludes only the first two shapes) *)
Theorem C08_relative_parsed_all : forall dbg hp hpo hd, HostOK2 hp hpo hd -> host_nonempty hp hpo -> host_no_wdl hp hd ->
  forall b t r, parsed dbg hp hpo hd b -> parsed dbg hp hpo hd t ->
  Known_file_drive b = false -> Known_file_drive t = false ->
  mr_ok b t = true -> make_relative dbg b t = Some (Some r) ->
  join dbg hp hpo hd b r = POk t.
Proof.
  intros dbg hp hpo hd HOK HNE HW b t r (bi & Hub & Pb) (ti & Hut & Pt) Kb Kt.
  exact (relative_reach7 dbg hp hpo hd HOK HNE HW b t r
           (RC7_parse dbg hp hpo hd None bi b Hub Pb Kb) (RC7_parse dbg hp hpo hd None ti t Hut Pt Kt)).
Qed.
Check C08_relative_parsed_all : forall dbg hp hpo hd, HostOK2 hp hpo hd -> host_nonempty hp hpo -> host_no_wdl hp hd ->
  forall b t r,
  (exists input, usv_list input /\ parse_url dbg hp hpo hd None None input = POk b) ->
  (exists input, usv_list input /\ parse_url dbg hp hpo hd None None input = POk t) ->
  Known_file_drive b = false -> Known_file_drive t = false ->
  mr_ok b t = true -> make_relative dbg b t = Some (Some r) ->
  parse_url dbg hp hpo hd None (Some b) r = POk t.
Print Assumptions C08_relative_parsed_all.
Theorem C08_absolute_parsed_all : forall dbg hp hpo hd, HostOK2 hp hpo hd -> host_nonempty hp hpo -> host_no_wdl hp hd ->
  forall u b, parsed dbg hp hpo hd u -> Known_file_drive u = false ->
  join dbg hp hpo hd b (utf8_lossy (ser u)) = POk u.
Proof.
  intros dbg hp hpo hd HOK HNE HW u b (ui & Hu & Pu) Ku.
  exact (absolute_reach7 dbg hp hpo hd HOK HNE HW u b (RC7_parse dbg hp hpo hd None ui u Hu Pu Ku)).
Qed.
Print Assumptions C08_absolute_parsed_all.

(* non-vacuity on the host model with idna_clean: file records of ReachC7 histories resolve to themselves against
   special / file / opaque / non-special bases; six (base, target) pairs of file records inside MR_ok - sub-directory,
   '../' steps with query and fragment, "?q" after set_query, "/" at the root (one-slash arm), the no-slash and
   one-slash entries of parse_file, "localhost" dropped and the empty reference - with the reference make_relative
   answers and its resolution *)
Example C08_reach7_inhabited :
  (m_abs (m_parse "file://h.x/a/../b c?q#f") "http://other/dir/file?x#y" = true
   /\ m_abs (m_parse "file://localhost/x\y") "file://host/c:/z" = true
   /\ m_abs (m_parse "file:x") "mailto:a@b" = true
   /\ m_abs (m_hist "file:///a/b" [OSetFragment (Some (B "z")); OSetQuery (Some (B "k v"))]) "file:///q" = true
   /\ m_abs (C02_Reach6.m_join "file://h.x/a/b?q#f" "?k") "a://h/p" = true)
  /\ (mf_case (m_parse "file:///tmp/a") (m_parse "file:///tmp/b/c/") "b/c/" = true
      /\ mf_case (m_parse "file://h.x/a/b/c?bq") (m_parse "file://h.x/a/d/e#f") "../d/e#f" = true
      /\ mf_case (m_parse "file://h.x/a/b") (m_hist "file://h.x/a/b" [OSetQuery (Some (B "k v"))]) "?k%20v" = true
      /\ mf_case (m_parse "file://h.x/f?q") (m_parse "file://h.x/") "/" = true
      /\ mf_case (m_parse "file:/x/y/z") (m_parse "file:x") "../../x" = true
      /\ mf_case (m_parse "file://localhost/a/b#x") (m_parse "file:///a/b") "" = true).
Proof. split; [exact abs_reach7_example | exact rel_reach7_example]. Qed.

(* 10. the STANDARD-side reading of containment for FILE bases (path-relative references) *)
(* Beside section 8 (which excludes file bases): base record a file URL whose path does not END in a normalized drive
   letter; reference (after the Standard's cleaning) without scheme, first character not '/', '\', '?', '#', not starting
   with a Windows drive letter - the "otherwise" branch of the Standard's file state (host and path of the base,
   shorten, path state).  ('?q', '#f' and the empty reference against a file base: C08_std_simple.) *)
From RU Require Import Proofs.C01_EqApi Proofs.C01_EqSpSpec Proofs.C01_EqFileBase Proofs.C08_StdFile.
Open Scope N_scope.

(* 10.1 on the Standard alone: the parser succeeds and scheme, username, password, host, port of the result are the
   base's - for every host parser (none is called) *)
Theorem C08_std_contain_file : forall shp input sb, spec_valid sb -> has_opaque_path sb = false ->
  list_eqb (su_scheme sb) str_file = true -> last_not_nwdl (Whatwg.path_segments sb) = true ->
  std_file_rel_pre (spec_clean input) = true ->
  exists su, spec_basic_url_parse shp input (Some sb) = BDone su /\ spec_same_front sb su.
Proof. exact std_contain_file. Qed.
Check C08_std_contain_file : forall shp input sb, spec_valid sb -> has_opaque_path sb = false ->
  list_eqb (su_scheme sb) str_file = true -> last_not_nwdl (Whatwg.path_segments sb) = true ->
  (match spec_scheme (spec_clean input) with None => true | Some _ => false end
   && match spec_clean input with
      | c :: _ => negb (is_sl c) && negb (c =? 63) && negb (c =? 35)
                  && negb (starts_with_windows_drive_letter (spec_clean input))
      | [] => false
      end) = true ->
  exists su, spec_basic_url_parse shp input (Some sb) = BDone su
    /\ su_scheme su = su_scheme sb /\ su_username su = su_username sb /\ su_password su = su_password sb
    /\ su_host su = su_host sb /\ su_port su = su_port sb.
Print Assumptions C08_std_contain_file.

(* 10.2 the crate's join agrees: for a related pair (b, sb) and a reference in C01's class in_class_file_rel_path
   (file base with a host field and a non-empty path not ending in a normalized drive letter; the reference as in 10.1
   and the path loop on it inside fpath_ok / strip_stable - no ".." on a drive-letter-shaped last segment, no drive
   letter becoming the first segment, leading-slash collapse harmless): the Standard succeeds keeping the front, and the
   model answers Overflow (then the Standard's href is beyond u32::MAX) or a record related to the Standard's result
   (same ten API strings / serialization), a full_base pair again, whose API strings protocol, username, password, host,
   hostname, port are those of the base.  NO hypothesis on the host functions *)
Theorem C08_std_contain_file_agree : forall dbg hp hpo hd shp shs b sb input,
  usv_list input -> related dbg shs b sb -> spec_base_ok sb = true -> in_class_file_rel_path sb input = true ->
  exists su, spec_basic_url_parse shp input (Some sb) = BDone su /\ spec_same_front sb su
    /\ ((join dbg hp hpo hd b input = PErr Overflow /\ U32_MAX_P < nlen (get_href shs su))
        \/ exists u', join dbg hp hpo hd b input = POk u' /\ related dbg shs u' su /\ full_base dbg shs u' su
                      /\ option_map api_front (api_of_model dbg u') = option_map api_front (api_of_model dbg b)).
Proof. exact std_contain_file_agree. Qed.
Print Assumptions C08_std_contain_file_agree.
(* non-vacuity: against the parse results (model / Standard) of file://h.x/tmp/dir/x?q#f the references y, a/../b?k#g,
   ../../../up, ./z/ and " s\t" are in the class; both parsers succeed, the Standard's result keeps scheme and host, its
   href is the model's serialization *)
Example C08_std_contain_file_inhabited :
  std_file_case (B "file://h.x/tmp/dir/x?q#f") [B "y"; B "a/../b?k#g"; B "../../../up"; B "./z/"; B " s\t"] = true.
Proof. vm_compute. reflexivity. Qed.

(* 11. the STANDARD-side reading of containment for FILE bases: the file state's simple arms and the
   file slash state *)
(* Beside section 10 (path-relative references): (11.1) the empty reference and references whose first character is
   '?' or '#' - the Standard's file state copies host, path (and query) of the base; (11.2) references with exactly ONE
   leading '/' or '\' (the next character is neither) - the Standard's file slash state, "otherwise" arm: the host of
   the base is kept and the first segment of the base path is carried over when it is a normalized Windows drive letter
   and the text behind the separator does not start with a drive letter.  The side conditions are computable predicates
   on the cleaned reference text.  There is NO drive-letter exclusion on the Standard's side of (11.2): "/C:/x" against
   file://h.x/p keeps the host h.x in the Standard (parser.rs drops it: C08_1_refuted, F-C01-1 / F-C08-1). *)
From RU Require Import Proofs.C01_EqFileSpec Proofs.C01_EqFileOne Proofs.C08_StdFileSlash.
Open Scope N_scope.

(* 11.1 empty / '?q' / '#f' (no hypothesis on the scheme is needed): success, the five front components and the path are
   the base's *)
Theorem C08_std_contain_file_simple : forall shp input sb, spec_valid sb -> has_opaque_path sb = false ->
  std_file_simple_pre (spec_clean input) = true ->
  exists su, spec_basic_url_parse shp input (Some sb) = BDone su /\ spec_same_front sb su /\ su_path su = su_path sb.
Proof. exact std_contain_file_simple. Qed.
Check C08_std_contain_file_simple : forall shp input sb, spec_valid sb -> has_opaque_path sb = false ->
  match spec_clean input with [] => true | c :: _ => (c =? 63) || (c =? 35) end = true ->
  exists su, spec_basic_url_parse shp input (Some sb) = BDone su
    /\ (su_scheme su = su_scheme sb /\ su_username su = su_username sb /\ su_password su = su_password sb
        /\ su_host su = su_host sb /\ su_port su = su_port sb)
    /\ su_path su = su_path sb.
Print Assumptions C08_std_contain_file_simple.

(* 11.2 one leading '/' or '\' against a file base: success, the five front components are the base's, and the closed
   form of the result: the path state run on the text behind the separator from the segment list one_init (the
   normalized drive letter of the base, or empty) *)
Theorem C08_std_contain_file_one : forall shp input sb, spec_valid sb -> has_opaque_path sb = false ->
  list_eqb (su_scheme sb) str_file = true -> std_file_one_pre (spec_clean input) = true ->
  exists su, spec_basic_url_parse shp input (Some sb) = BDone su /\ spec_same_front sb su
    /\ su = file_tail (fkeep sb (one_init sb (tl (spec_clean input))))
                      (spath_f (tl (spec_clean input)) (one_init sb (tl (spec_clean input))) []).
Proof. exact std_contain_file_one. Qed.
Check C08_std_contain_file_one : forall shp input sb, spec_valid sb -> has_opaque_path sb = false ->
  list_eqb (su_scheme sb) str_file = true ->
  match spec_clean input with
  | c1 :: R1 => is_sl c1 && match R1 with c2 :: _ => negb (is_sl c2) | [] => true end
  | [] => false
  end = true ->
  exists su, spec_basic_url_parse shp input (Some sb) = BDone su
    /\ (su_scheme su = su_scheme sb /\ su_username su = su_username sb /\ su_password su = su_password sb
        /\ su_host su = su_host sb /\ su_port su = su_port sb)
    /\ su = file_tail (fkeep sb (one_init sb (tl (spec_clean input))))
                      (spath_f (tl (spec_clean input)) (one_init sb (tl (spec_clean input))) []).
Print Assumptions C08_std_contain_file_one.

(* 11.3 all proved scheme-less reference shapes against a file base together (11.1, 11.2, 10.1; the three premises are
   pairwise disjoint: std_file_pre_disjoint).  Outside: two leading slash characters (the authority is the
   reference's), a reference starting with a Windows drive letter, a path-relative reference against a base whose path
   ENDS in a normalized drive letter *)
Theorem C08_std_contain_file_all : forall shp input sb, spec_valid sb -> has_opaque_path sb = false ->
  list_eqb (su_scheme sb) str_file = true -> std_file_all_pre sb (spec_clean input) = true ->
  exists su, spec_basic_url_parse shp input (Some sb) = BDone su /\ spec_same_front sb su.
Proof.
  intros shp input sb.
  intros V Hop Hf Hpre. apply std_contain_file_any; try assumption.
  unfold std_file_all_pre in Hpre. unfold std_file_any_pre.
  destruct (std_file_simple_pre (spec_clean input) || std_file_one_pre (spec_clean input)); [reflexivity|].
  apply andb_true_iff in Hpre. exact (proj1 Hpre).
Qed.
Check C08_std_contain_file_all : forall shp input sb, spec_valid sb -> has_opaque_path sb = false ->
  list_eqb (su_scheme sb) str_file = true ->
  (std_file_simple_pre (spec_clean input) || std_file_one_pre (spec_clean input)
   || (std_file_rel_pre (spec_clean input) && last_not_nwdl (Whatwg.path_segments sb))) = true ->
  exists su, spec_basic_url_parse shp input (Some sb) = BDone su
    /\ su_scheme su = su_scheme sb /\ su_username su = su_username sb /\ su_password su = su_password sb
    /\ su_host su = su_host sb /\ su_port su = su_port sb.
Print Assumptions C08_std_contain_file_all.

(* 11.4 the crate's join agrees on the one-slash references of C01's classes in_class_file_rel_one (nothing carried:
   base with a host field whose first path segment is not a normalized drive letter and no drive letter behind the
   separator - or a drive letter behind the separator and a base with the EMPTY host) and in_class_file_rel_one_carry
   (base with the empty host and a normalized drive letter as first segment, carried over by both sides); the path loop
   inside fpath_ok / strip_stable: the Standard succeeds keeping the front, and the model answers Overflow (then the
   Standard's href is beyond u32::MAX) or a record related to the Standard's result, a full_base pair again, whose API
   strings protocol, username, password, host, hostname, port are the base's.  One hypothesis on the Standard's host
   serializer (the empty host serializes to the empty text - true of spec_host_serializer), none on the host parsers *)
Theorem C08_std_contain_file_one_agree : forall dbg hp hpo hd shp shs, shs SEmpty = [] -> forall b sb input,
  usv_list input -> related dbg shs b sb -> spec_base_ok sb = true -> in_class_file_one_any sb input = true ->
  exists su, spec_basic_url_parse shp input (Some sb) = BDone su /\ spec_same_front sb su
    /\ ((join dbg hp hpo hd b input = PErr Overflow /\ U32_MAX_P < nlen (get_href shs su))
        \/ exists u', join dbg hp hpo hd b input = POk u' /\ related dbg shs u' su /\ full_base dbg shs u' su
                      /\ option_map api_front (api_of_model dbg u') = option_map api_front (api_of_model dbg b)).
Proof.
  intros dbg hp hpo hd shp shs Hse b sb input.
  intros Hu R Hbok Hc.
  destruct (in_class_file_one_pre sb input Hc) as (Hop & Hf & Hpre).
  destruct (std_contain_file_one shp input sb (rel_valid _ _ _ _ R) Hop Hf Hpre) as (su & HS & HF & _).
  exists su. split; [exact HS|]. split; [exact HF|].
  apply (class_front_transfer dbg hp hpo hd shp shs b sb su input R HS HF).
  unfold in_class_file_one_any in Hc. apply orb_true_iff in Hc. destruct Hc as [Hc|Hc].
  - exact (class_file_rel_one dbg hp hpo hd shp shs Hse input b sb Hu R Hbok Hc).
  - exact (class_file_rel_one_carry dbg hp hpo hd shp shs Hse input b sb Hu R Hc).
Qed.
Check C08_std_contain_file_one_agree : forall dbg hp hpo hd shp shs, shs SEmpty = [] -> forall b sb input,
  usv_list input -> related dbg shs b sb -> spec_base_ok sb = true ->
  (in_class_file_rel_one sb input || in_class_file_rel_one_carry sb input) = true ->
  exists su, spec_basic_url_parse shp input (Some sb) = BDone su /\ spec_same_front sb su
    /\ ((parse_url dbg hp hpo hd None (Some b) input = PErr Overflow /\ U32_MAX_P < nlen (get_href shs su))
        \/ exists u', parse_url dbg hp hpo hd None (Some b) input = POk u' /\ related dbg shs u' su
                      /\ full_base dbg shs u' su
                      /\ option_map api_front (api_of_model dbg u') = option_map api_front (api_of_model dbg b)).
Print Assumptions C08_std_contain_file_one_agree.

(* non-vacuity (host model with idna_clean): on the Standard alone, against file://h.x/tmp/d?q the references "", "?x",
   "#f", "/p", "\p", "/C:/x" (host kept by the Standard) and " /a/../b?k#g" meet 11.1 / 11.2 and hence 11.3, the Standard
   succeeds and scheme, host, hostname, port texts are the base's; the same against the drive-letter base
   file:///C:/tmp/d?q; with the crate: "/p", "\p", "/a/../b?k#g" against file://h.x/tmp/d?q are in the class of 11.4, both
   sides succeed with the serialization shown; "/p" and "/" against file:///C:/tmp/d?q are in the carry class and the
   drive letter stays: file:///C:/p, file:///C:/ *)
Example C08_std_contain_file_slash_inhabited :
  std_fs_case (B "file://h.x/tmp/d?q") [B ""; B "?x"; B "#f"; B "/p"; B "\p"; B "/C:/x"; B " /a/../b?k#g"] = true
  /\ std_fs_case (B "file:///C:/tmp/d?q") [B ""; B "?x"; B "#f"; B "/p"; B "\p"] = true
  /\ std_fs_agree_case (B "file://h.x/tmp/d?q")
       [(B "/p", B "file://h.x/p"); (B "\p", B "file://h.x/p"); (B "/a/../b?k#g", B "file://h.x/b?k#g")] = true
  /\ std_fs_agree_case (B "file:///C:/tmp/d?q") [(B "/p", B "file:///C:/p"); (B "/", B "file:///C:/")] = true.
Proof. vm_compute. repeat split. Qed.

(* 11.5 path-relative references against ANY file base: section 10.1 without its premise on the last segment of the base
   path - the Standard's "shorten" in general form (shorten_f: a path that is a single normalized drive letter is kept,
   otherwise the last segment goes); success, the front is the base's, closed form of the result *)
Theorem C08_std_contain_file_rel_any : forall shp input sb, spec_valid sb -> has_opaque_path sb = false ->
  list_eqb (su_scheme sb) str_file = true -> std_file_rel_pre (spec_clean input) = true ->
  exists su, spec_basic_url_parse shp input (Some sb) = BDone su /\ spec_same_front sb su
    /\ su = file_tail (fkeep sb (shorten_f (Whatwg.path_segments sb)))
                      (spath_f (spec_clean input) (shorten_f (Whatwg.path_segments sb)) []).
Proof. exact std_contain_file_rel_any. Qed.
Check C08_std_contain_file_rel_any : forall shp input sb, spec_valid sb -> has_opaque_path sb = false ->
  list_eqb (su_scheme sb) str_file = true ->
  (match spec_scheme (spec_clean input) with None => true | Some _ => false end
   && match spec_clean input with
      | c :: _ => negb (is_sl c) && negb (c =? 63) && negb (c =? 35)
                  && negb (starts_with_windows_drive_letter (spec_clean input))
      | [] => false
      end) = true ->
  exists su, spec_basic_url_parse shp input (Some sb) = BDone su
    /\ (su_scheme su = su_scheme sb /\ su_username su = su_username sb /\ su_password su = su_password sb
        /\ su_host su = su_host sb /\ su_port su = su_port sb)
    /\ su = file_tail (fkeep sb (shorten_f (Whatwg.path_segments sb)))
                      (spath_f (spec_clean input) (shorten_f (Whatwg.path_segments sb)) []).
Print Assumptions C08_std_contain_file_rel_any.

(* 11.6 the Standard-side containment law for FILE bases with NO premise on the base path: every file base record
   (spec_valid, not opaque) and every reference whose cleaned text is empty, '?'-led, '#'-led, led by exactly one '/' or
   '\', or scheme-less with a first character outside '/', '\', '?', '#' and not starting with a Windows drive letter.
   Outside: a reference with a scheme, two leading slash characters (the authority is the reference's), a scheme-less
   reference starting with a Windows drive letter ("C|/y"): 11.7, and all of them together: 11.8 *)
Theorem C08_std_contain_file_any : forall shp input sb, spec_valid sb -> has_opaque_path sb = false ->
  list_eqb (su_scheme sb) str_file = true -> std_file_any_pre (spec_clean input) = true ->
  exists su, spec_basic_url_parse shp input (Some sb) = BDone su /\ spec_same_front sb su.
Proof. exact std_contain_file_any. Qed.
Check C08_std_contain_file_any : forall shp input sb, spec_valid sb -> has_opaque_path sb = false ->
  list_eqb (su_scheme sb) str_file = true ->
  (std_file_simple_pre (spec_clean input) || std_file_one_pre (spec_clean input)
   || std_file_rel_pre (spec_clean input)) = true ->
  exists su, spec_basic_url_parse shp input (Some sb) = BDone su
    /\ su_scheme su = su_scheme sb /\ su_username su = su_username sb /\ su_password su = su_password sb
    /\ su_host su = su_host sb /\ su_port su = su_port sb.
Print Assumptions C08_std_contain_file_any.
(* non-vacuity: bases file:///C: (the drive letter is not shortened away: "x" gives file:///C:/x, "../y?k" gives
   file:///C:/y?k), file://h.x/a/C: (a drive-letter-shaped LAST segment that is not the first is dropped as usual) and
   file://h.x/tmp/d?q with the references "", "?x", "#f", "/p", "\p", "e/f": premise met, the Standard succeeds with the
   href shown, scheme / host / port those of the base *)
Example C08_std_contain_file_any_inhabited :
  std_fs_any_case (B "file:///C:") [(B "x", B "file:///C:/x"); (B "../y?k", B "file:///C:/y?k"); (B "", B "file:///C:");
                                    (B "/p", B "file:///C:/p")] = true
  /\ std_fs_any_case (B "file://h.x/a/C:") [(B "x", B "file://h.x/a/x"); (B "..", B "file://h.x/"); (B "/D:/z", B "file://h.x/D:/z")] = true
  /\ std_fs_any_case (B "file://h.x/tmp/d?q") [(B "", B "file://h.x/tmp/d?q"); (B "?x", B "file://h.x/tmp/d?x");
       (B "#f", B "file://h.x/tmp/d?q#f"); (B "/p", B "file://h.x/p"); (B "\p", B "file://h.x/p"); (B "e/f", B "file://h.x/tmp/e/f")] = true.
Proof. vm_compute. repeat split. Qed.

(* 11.7 a scheme-less reference that starts with a Windows drive letter ("C|/y"; with ':' the letter is a scheme) against
   a file base: the Standard's file state takes the host of the base and the EMPTY path - the host is KEPT (parser.rs
   drops it: the drive-letter branches of parse_file, F-C08-1) *)
Theorem C08_std_contain_file_drive : forall shp input sb, spec_valid sb -> has_opaque_path sb = false ->
  list_eqb (su_scheme sb) str_file = true -> spec_scheme (spec_clean input) = None ->
  starts_with_windows_drive_letter (spec_clean input) = true ->
  exists su, spec_basic_url_parse shp input (Some sb) = BDone su /\ spec_same_front sb su
    /\ su = file_tail (fkeep sb []) (spath_f (spec_clean input) [] []).
Proof. exact std_contain_file_drive. Qed.
Print Assumptions C08_std_contain_file_drive.

(* 11.8 the Standard-side containment law for FILE bases in full: the premise of 8.2 (reference without scheme and
   without two leading slash characters, '\' counting) and nothing else - no premise on the base path, no drive-letter
   exclusion on the reference *)
Theorem C08_std_contain_file_full : forall shp input sb, spec_valid sb -> has_opaque_path sb = false ->
  list_eqb (su_scheme sb) str_file = true -> std_contain_pre sb (spec_clean input) = true ->
  exists su, spec_basic_url_parse shp input (Some sb) = BDone su /\ spec_same_front sb su.
Proof. exact std_contain_file_full. Qed.
Check C08_std_contain_file_full : forall shp input sb, spec_valid sb -> has_opaque_path sb = false ->
  list_eqb (su_scheme sb) str_file = true ->
  (negb (has_scheme_b (spec_clean input))
   && negb (two_leading_slashes (is_special_scheme (su_scheme sb)) (spec_clean input))) = true ->
  exists su, spec_basic_url_parse shp input (Some sb) = BDone su
    /\ su_scheme su = su_scheme sb /\ su_username su = su_username sb /\ su_password su = su_password sb
    /\ su_host su = su_host sb /\ su_port su = su_port sb.
Print Assumptions C08_std_contain_file_full.

(* 11.9 = 8.2 without its premise on the scheme: the Standard-side containment law for EVERY base record that is not
   opaque.  Reference without scheme and without two leading slash characters ('\' counting only when the base's scheme
   is special): the Standard never fails and scheme, username, password, host and port of the result are the base's -
   for every host parser *)
Theorem C08_std_contain_every : forall shp input sb, spec_valid sb -> has_opaque_path sb = false ->
  std_contain_pre sb (spec_clean input) = true ->
  exists su, spec_basic_url_parse shp input (Some sb) = BDone su /\ spec_same_front sb su.
Proof. exact std_contain_every. Qed.
Check C08_std_contain_every : forall shp input sb,
  ((has_opaque_path sb = true -> su_host sb = None /\ su_username sb = [] /\ su_password sb = [] /\ su_port sb = None)
   /\ (su_scheme sb = str_file -> su_username sb = [] /\ su_password sb = [] /\ su_port sb = None)) ->
  has_opaque_path sb = false ->
  (negb (has_scheme_b (spec_clean input))
   && negb (two_leading_slashes (is_special_scheme (su_scheme sb)) (spec_clean input))) = true ->
  exists su, spec_basic_url_parse shp input (Some sb) = BDone su
    /\ su_scheme su = su_scheme sb /\ su_username su = su_username sb /\ su_password su = su_password sb
    /\ su_host su = su_host sb /\ su_port su = su_port sb.
Print Assumptions C08_std_contain_every.
(* non-vacuity: against file://h.x/tmp/d?q the references "", "?x", "#f", "/p", "\p", "e/f" and the drive-letter references
   "C|/y", "/C:/x", "/C|" (the Standard keeps h.x in all three: file://h.x/C:/y, file://h.x/C:/x, file://h.x/C:); against
   file:///C:/a/b "/p" (drive letter carried), "/D|/p" (not carried), "..", "../../.." (the drive letter is never
   shortened away), "D|"; against https://u:p@h.x:8/a/b?q "/C:/x" and "\z": premise met, success, front kept, href shown *)
Example C08_std_contain_every_inhabited :
  std_every_case (B "file://h.x/tmp/d?q")
    [(B "", B "file://h.x/tmp/d?q"); (B "?x", B "file://h.x/tmp/d?x"); (B "#f", B "file://h.x/tmp/d?q#f");
     (B "/p", B "file://h.x/p"); (B "\p", B "file://h.x/p"); (B "e/f", B "file://h.x/tmp/e/f");
     (B "C|/y", B "file://h.x/C:/y"); (B "/C:/x", B "file://h.x/C:/x"); (B "/C|", B "file://h.x/C:")] = true
  /\ std_every_case (B "file:///C:/a/b") [(B "/p", B "file:///C:/p"); (B "/D|/p", B "file:///D:/p"); (B "..", B "file:///C:/");
       (B "../../..", B "file:///C:/"); (B "D|", B "file:///D:")] = true
  /\ std_every_case (B "https://u:p@h.x:8/a/b?q") [(B "/C:/x", B "https://u:p@h.x:8/C:/x"); (B "\z", B "https://u:p@h.x:8/z")] = true.
Proof. vm_compute. repeat split. Qed.

(* 11.10 where parser.rs leaves the law of 11.8 (the known finding F-C01-1 / F-C08-1 read on the Standard's side): both
   references meet the premise of 11.8 against the base file://h.x/tmp/d; the Standard keeps the host (file://h.x/C:/y,
   file://h.x/C:/x), the model of Url::join drops it (file:///C:/y, file:///C:/x) *)
Theorem C08_std_file_drive_divergence :
  std_file_diverge_case (B "file://h.x/tmp/d") (B "C|/y") (B "file://h.x/C:/y") (B "file:///C:/y") = true
  /\ std_file_diverge_case (B "file://h.x/tmp/d") (B "/C:/x") (B "file://h.x/C:/x") (B "file:///C:/x") = true.
Proof. vm_compute. split; reflexivity. Qed.
Print Assumptions C08_std_file_drive_divergence.

(* 11.11 transfer: for ANY related pair of base records that is not opaque (file or not) and ANY reference meeting the
   Standard-side premise on which the model's answer agrees with the Standard's (agree_good - the conclusion of every
   class theorem of C01): the Standard succeeds keeping the front, and the model answers Overflow or a related record
   whose API strings protocol, username, password, host, hostname, port are the base's.  So every
   class theorem of the C01 equivalence gives containment of the crate's join at no extra cost *)
Theorem C08_std_contain_transfer : forall dbg hp hpo hd shp shs b sb input,
  related dbg shs b sb -> has_opaque_path sb = false -> std_contain_pre sb (spec_clean input) = true ->
  agree_good dbg shs (join dbg hp hpo hd b input) (spec_basic_url_parse shp input (Some sb)) ->
  exists su, spec_basic_url_parse shp input (Some sb) = BDone su /\ spec_same_front sb su /\ spec_base_ok su = true
    /\ ((join dbg hp hpo hd b input = PErr Overflow /\ U32_MAX_P < nlen (get_href shs su))
        \/ exists u', join dbg hp hpo hd b input = POk u' /\ related dbg shs u' su
                      /\ option_map api_front (api_of_model dbg u') = option_map api_front (api_of_model dbg b)).
Proof.
  intros dbg hp hpo hd shp shs b sb input.
  intros R Hop Hpre A.
  destruct (std_contain_every shp input sb (rel_valid _ _ _ _ R) Hop Hpre) as (su & HS & HF).
  exists su. split; [exact HS|]. split; [exact HF|]. exact (std_front_transfer dbg hp hpo hd shp shs b sb su input R HS HF A).
Qed.
Print Assumptions C08_std_contain_transfer.

(* 11.12 the drive-letter reference ("C|/y") with the crate: C01's class in_class_file_rel_drive (file base with the
   EMPTY host, the path loop inside fp_ok): the Standard succeeds keeping the front and the crate's join answers Overflow
   or a related record, a full_base pair again, with the base's front API strings *)
Theorem C08_std_contain_file_drive_agree : forall dbg hp hpo hd shp shs, shs SEmpty = [] -> forall b sb input,
  usv_list input -> related dbg shs b sb -> in_class_file_rel_drive sb input = true ->
  exists su, spec_basic_url_parse shp input (Some sb) = BDone su /\ spec_same_front sb su
    /\ ((join dbg hp hpo hd b input = PErr Overflow /\ U32_MAX_P < nlen (get_href shs su))
        \/ exists u', join dbg hp hpo hd b input = POk u' /\ related dbg shs u' su /\ full_base dbg shs u' su
                      /\ option_map api_front (api_of_model dbg u') = option_map api_front (api_of_model dbg b)).
Proof.
  intros dbg hp hpo hd shp shs Hse b sb input.
  intros Hu R Hc.
  destruct (in_class_file_rel_drive_pre sb input Hc) as (Hop & Hf & Hs & Hw).
  destruct (std_contain_file_drive shp input sb (rel_valid _ _ _ _ R) Hop Hf Hs Hw) as (su & HS & HF & _).
  exists su. split; [exact HS|]. split; [exact HF|].
  exact (proj2 (class_front_transfer dbg hp hpo hd shp shs b sb su input R HS HF
                  (class_file_rel_drive dbg hp hpo hd shp shs Hse input b sb Hu R Hc))).
Qed.
Print Assumptions C08_std_contain_file_drive_agree.
(* non-vacuity: against file:///tmp/d?q (both parsers) the references "C|/y", "d|", " C|\z?k#g" are in the class and meet
   the premise of 11.11; both sides succeed with the serialization shown, the (empty) host is the base's *)
Example C08_std_contain_file_drive_agree_inhabited :
  std_fs_drive_agree_case (B "file:///tmp/d?q") [(B "C|/y", B "file:///C:/y"); (B "d|", B "file:///d:"); (B " C|\z?k#g", B "file:///C:/z?k#g")] = true.
Proof. vm_compute. reflexivity. Qed.

From RU Require Import Proofs.C01_EqFileBase2 Proofs.C01_EqFileRel2 Proofs.C08_StdFileClasses.
(* 11.13 ALL of C01's classes for a file base record at once (in_class_file_base_any = rel_path, rel_one, rel_one_carry,
   rel_drive, rel2, same_path, same_one, same_one_carry, same_drive): for a related file base pair with spec_base_ok and a
   reference in any of the classes that meets the Standard-side premise, the Standard succeeds keeping the front and the
   crate's join answers Overflow or a related record, a full_base pair again, with the base's front API strings.  The
   premise leaves the four scheme-less classes rel_path / rel_one / rel_one_carry / rel_drive (rel2 has two leading
   slashes, the same_* classes a scheme: see 11.14 for those), so no host hypothesis is needed *)
Theorem C08_std_contain_file_classes_agree : forall dbg hp hpo hd shp shs, shs SEmpty = [] -> forall b sb input,
  usv_list input -> related dbg shs b sb -> spec_base_ok sb = true ->
  in_class_file_base_any sb input = true -> std_contain_pre sb (spec_clean input) = true ->
  exists su, spec_basic_url_parse shp input (Some sb) = BDone su /\ spec_same_front sb su /\ spec_base_ok su = true
    /\ ((join dbg hp hpo hd b input = PErr Overflow /\ U32_MAX_P < nlen (get_href shs su))
        \/ exists u', join dbg hp hpo hd b input = POk u' /\ related dbg shs u' su /\ full_base dbg shs u' su
                      /\ option_map api_front (api_of_model dbg u') = option_map api_front (api_of_model dbg b)).
Proof.
  intros dbg hp hpo hd shp shs Hse b sb input.
  intros Hu R Hbok Hc Hpre.
  pose proof Hpre as Hpre'. unfold std_contain_pre in Hpre'. apply andb_true_iff in Hpre'. destruct Hpre' as [H1 H2].
  apply negb_true_iff in H1. apply negb_true_iff in H2. pose proof (no_scheme_std input H1) as Hs.
  assert (has_opaque_path sb = false
          /\ (agree_good dbg shs (parse_url dbg hp hpo hd None (Some b) input) (spec_basic_url_parse shp input (Some sb))
              /\ (forall su u, spec_basic_url_parse shp input (Some sb) = BDone su ->
                    parse_url dbg hp hpo hd None (Some b) input = POk u -> full_base dbg shs u su))) as (Hop & C).
  { unfold in_class_file_base_any in Hc. repeat rewrite orb_true_iff in Hc.
    destruct Hc as [[[[[[[[Hc|Hc]|Hc]|Hc]|Hc]|Hc]|Hc]|Hc]|Hc].
    - destruct (file_base_ok_facts sb (in_class_file_rel_path_base sb input Hc)) as (Hop & _).
      split; [exact Hop|]. exact (class_file_rel_path_good dbg hp hpo hd shp shs input b sb Hu R Hbok Hc).
    - assert (in_class_file_one_any sb input = true) as Hc' by (unfold in_class_file_one_any; rewrite Hc; reflexivity).
      destruct (in_class_file_one_pre sb input Hc') as (Hop & _).
      split; [exact Hop|]. exact (class_file_rel_one dbg hp hpo hd shp shs Hse input b sb Hu R Hbok Hc).
    - assert (in_class_file_one_any sb input = true) as Hc' by (unfold in_class_file_one_any; rewrite Hc; apply orb_true_r).
      destruct (in_class_file_one_pre sb input Hc') as (Hop & _).
      split; [exact Hop|]. exact (class_file_rel_one_carry dbg hp hpo hd shp shs Hse input b sb Hu R Hc).
    - destruct (in_class_file_rel_drive_pre sb input Hc) as (Hop & _).
      split; [exact Hop|]. exact (class_file_rel_drive dbg hp hpo hd shp shs Hse input b sb Hu R Hc).
    - exfalso. rewrite (in_class_file_rel2_two sb input Hc) in H2. discriminate H2.
    - exfalso. unfold in_class_file_same_path in Hc. rewrite Hs in Hc. rewrite andb_false_r in Hc. discriminate Hc.
    - exfalso. unfold in_class_file_same_one in Hc. rewrite Hs in Hc. discriminate Hc.
    - exfalso. unfold in_class_file_same_one_carry in Hc. rewrite Hs in Hc. discriminate Hc.
    - exfalso. unfold in_class_file_same_drive in Hc. rewrite Hs in Hc. discriminate Hc. }
  destruct (std_contain_every shp input sb (rel_valid _ _ _ _ R) Hop Hpre) as (su & HS & HF).
  exists su. split; [exact HS|]. split; [exact HF|].
  exact (class_front_transfer dbg hp hpo hd shp shs b sb su input R HS HF C).
Qed.
Print Assumptions C08_std_contain_file_classes_agree.
(* non-vacuity: one line per class (both parsers on base and reference; flag = the reference meets the premise of 11.11;
   both sides succeed with the serialization shown; with the flag set the host text is the base's) *)
Example C08_std_contain_file_classes_agree_inhabited :
  std_fs_classes_case in_class_file_rel_path (B "file://h.x/tmp/d?q") [(B "e/f", true, B "file://h.x/tmp/e/f"); (B "../g?k#z", true, B "file://h.x/g?k#z")] = true
  /\ std_fs_classes_case in_class_file_rel_one (B "file://h.x/tmp/d?q") [(B "/p", true, B "file://h.x/p"); (B "\p", true, B "file://h.x/p")] = true
  /\ std_fs_classes_case in_class_file_rel_one_carry (B "file:///C:/a/b") [(B "/p", true, B "file:///C:/p")] = true
  /\ std_fs_classes_case in_class_file_rel_drive (B "file:///tmp/d?q") [(B "C|/y", true, B "file:///C:/y")] = true
  /\ std_fs_classes_case in_class_file_rel2 (B "file://h.x/tmp/d?q") [(B "//g.y/z", false, B "file://g.y/z")] = true
  /\ std_fs_classes_case in_class_file_same_path (B "file://h.x/tmp/d?q") [(B "file:e/f", false, B "file://h.x/tmp/e/f")] = true
  /\ std_fs_classes_case in_class_file_same_one (B "file://h.x/tmp/d?q") [(B "file:/p", false, B "file://h.x/p")] = true
  /\ std_fs_classes_case in_class_file_same_one_carry (B "file:///C:/a/b") [(B "file:/p", false, B "file:///C:/p")] = true
  /\ std_fs_classes_case in_class_file_same_drive (B "file:///tmp/d?q") [(B "file:C|/y", false, B "file:///C:/y")] = true.
Proof. vm_compute. repeat split. Qed.

(* 11.14 the "file:"-prefixed references against a file base ("file:x", "file:/x", "file:C|/y": they have a scheme, so
   the premise of 11.8 excludes them), Standard side: the text behind "file:" starts with a Windows drive letter, or has
   exactly one leading '/' or '\', or is path-relative with the last segment of the base path not a normalized drive
   letter (std_file_same_pre): the Standard does NOT treat the reference as absolute - it succeeds and keeps scheme,
   (empty) credentials, host, port of the base *)
Theorem C08_std_contain_file_same : forall shp input sb, spec_valid sb -> has_opaque_path sb = false ->
  list_eqb (su_scheme sb) str_file = true -> std_file_same_pre sb (spec_clean input) = true ->
  exists su, spec_basic_url_parse shp input (Some sb) = BDone su /\ spec_same_front sb su.
Proof. exact std_contain_file_same. Qed.
Print Assumptions C08_std_contain_file_same.

(* 11.15 transfer without the premise of 11.8: for ANY related base pair and ANY reference on which the Standard succeeds
   keeping the front and the model's answer agrees with the Standard's (agree_good), the crate's join answers Overflow or
   a related record with the base's front API strings *)
Theorem C08_std_front_transfer : forall dbg hp hpo hd shp shs b sb su input, related dbg shs b sb ->
  spec_basic_url_parse shp input (Some sb) = BDone su -> spec_same_front sb su ->
  agree_good dbg shs (join dbg hp hpo hd b input) (spec_basic_url_parse shp input (Some sb)) ->
  spec_base_ok su = true
  /\ ((join dbg hp hpo hd b input = PErr Overflow /\ U32_MAX_P < nlen (get_href shs su))
      \/ exists u', join dbg hp hpo hd b input = POk u' /\ related dbg shs u' su
                    /\ option_map api_front (api_of_model dbg u') = option_map api_front (api_of_model dbg b)).
Proof. exact std_front_transfer. Qed.
Print Assumptions C08_std_front_transfer.

(* 11.16 C01's four "file:"-prefixed classes (in_class_file_same_any = same_path, same_one, same_one_carry, same_drive) with
   the crate: the Standard succeeds keeping the front and the crate's join answers Overflow or a related record, a
   full_base pair again, with the base's front API strings - the crate does not treat "file:x" / "file:/x" against a
   file base as absolute either *)
Theorem C08_std_contain_file_same_classes_agree : forall dbg hp hpo hd shp shs, shs SEmpty = [] -> forall b sb input,
  usv_list input -> related dbg shs b sb -> spec_base_ok sb = true -> in_class_file_same_any sb input = true ->
  exists su, spec_basic_url_parse shp input (Some sb) = BDone su /\ spec_same_front sb su /\ spec_base_ok su = true
    /\ ((join dbg hp hpo hd b input = PErr Overflow /\ U32_MAX_P < nlen (get_href shs su))
        \/ exists u', join dbg hp hpo hd b input = POk u' /\ related dbg shs u' su /\ full_base dbg shs u' su
                      /\ option_map api_front (api_of_model dbg u') = option_map api_front (api_of_model dbg b)).
Proof.
  intros dbg hp hpo hd shp shs Hse b sb input.
  intros Hu R Hbok Hc.
  destruct (in_class_file_same_pre sb input Hc) as (Hop & Hf & Hpre).
  destruct (std_contain_file_same shp input sb (rel_valid _ _ _ _ R) Hop Hf Hpre) as (su & HS & HF).
  exists su. split; [exact HS|]. split; [exact HF|].
  apply (class_front_transfer dbg hp hpo hd shp shs b sb su input R HS HF).
  unfold in_class_file_same_any in Hc. repeat rewrite orb_true_iff in Hc. destruct Hc as [[[Hc|Hc]|Hc]|Hc].
  - exact (class_file_same_path dbg hp hpo hd shp shs input b sb Hu R Hbok Hc).
  - exact (class_file_same_one dbg hp hpo hd shp shs Hse input b sb Hu R Hbok Hc).
  - exact (class_file_same_one_carry dbg hp hpo hd shp shs Hse input b sb Hu R Hc).
  - exact (class_file_same_drive dbg hp hpo hd shp shs Hse input b sb Hu R Hc).
Qed.
Print Assumptions C08_std_contain_file_same_classes_agree.
(* non-vacuity of 11.14 / 11.16: Standard side against file://h.x/tmp/d?q: "file:x", "file:/x", "file:\x", "file:C|/y",
   "FILE:../e?k#g" and against file:///C:/a/b "file:/p" (drive letter carried), "file:x": premise met (and the premise of
   11.8 not), success, scheme / host / port kept, href shown; with the crate: references of the four classes, both
   sides succeed, host text kept, same serialization *)
Example C08_std_contain_file_same_inhabited :
  std_fs_same_case (B "file://h.x/tmp/d?q") [(B "file:x", B "file://h.x/tmp/x"); (B "file:/x", B "file://h.x/x");
      (B "file:\x", B "file://h.x/x"); (B "file:C|/y", B "file://h.x/C:/y"); (B "FILE:../e?k#g", B "file://h.x/e?k#g")] = true
  /\ std_fs_same_case (B "file:///C:/a/b") [(B "file:/p", B "file:///C:/p"); (B "file:x", B "file:///C:/a/x")] = true
  /\ std_fs_same_agree_case (B "file://h.x/tmp/d?q") [(B "file:x", B "file://h.x/tmp/x"); (B "file:/x", B "file://h.x/x");
      (B " file:\x?k#g", B "file://h.x/x?k#g")] = true
  /\ std_fs_same_agree_case (B "file:///C:/a/b") [(B "file:/p", B "file:///C:/p")] = true
  /\ std_fs_same_agree_case (B "file:///tmp/d?q") [(B "file:C|/y", B "file:///C:/y")] = true.
Proof. vm_compute. repeat split. Qed.

(* 11.17 where parser.rs leaves 11.14 (the drive-letter branch of parse_file once more, F-C01-1 / F-C08-1): "file:C|/y"
   against file://h.x/tmp/d meets std_file_same_pre; the Standard keeps the host (file://h.x/C:/y), the model of Url::join
   drops it (file:///C:/y) *)
Theorem C08_std_file_same_drive_divergence :
  std_file_same_diverge_case (B "file://h.x/tmp/d") (B "file:C|/y") (B "file://h.x/C:/y") (B "file:///C:/y") = true.
Proof. vm_compute. reflexivity. Qed.
Print Assumptions C08_std_file_same_drive_divergence.
