(* Properties/C11.v - IDNA error reporting across fail-fast / mark-errors / dual output.
   Statements; the lemmas are in Proofs/Idna_*.v (C11_same_verdict_partial and C11_passthrough_partial are assembled
   here from theirs, the Examples are computed here).  The five Definitions C11_*_statement of Proofs/Idna_Hyp.v are
   proved: C11_same_verdict and C11_dual for the adapters with map_normalize A [] = [] (a necessary premise:
   C11_same_verdict_unconditional_refuted, C11_dual_unconditional_refuted); C11_err_fffd, C11_ok_no_fffd and
   C11_passthrough for every adapter.  Inside Known_C11 the same-verdict and the U+FFFD-on-error clause fail:
   C11_same_verdict_refuted (F-C11-2), C11_err_fffd_refuted (F-C11-1).  See theorem_notes in tools/props_d/C11.py. *)
From RU Require Import Base.Prelude Base.Utf8 Base.U32_c13 Gen.Tables Model.Punycode Model.Uts46
  Proofs.Idna_Sim Proofs.Idna_Api Proofs.Idna_Known Proofs.Idna_Hyp Proofs.Idna_Tables Proofs.Idna_Redisc
  Proofs.Idna_C10_Deny Proofs.Idna_C10_Prefix Proofs.Idna_C10_Inner Proofs.Idna_Mark Proofs.Idna_MarkWalk Proofs.Idna_MarkFffd
  Proofs.Idna_WalkFun Proofs.Idna_WalkInv Proofs.Idna_WalkApi Proofs.Idna_WalkPass.

(* the core: for EVERY adapter, the fail-fast run of process_inner returns early exactly when the
   marking run sets had_errors, and otherwise the two runs produce the same buffers *)
Theorem C11_inner_sim : forall A cfg hy deny d, Redisc A cfg deny ->
  inner_sim (process_inner A cfg true hy deny d) (process_inner A cfg false hy deny d).
Proof. exact Idna_SimRun.process_inner_sim. Qed.
Check C11_inner_sim : forall A cfg hy deny d, Redisc A cfg deny ->
  inner_sim (process_inner A cfg true hy deny d) (process_inner A cfg false hy deny d).
Print Assumptions C11_inner_sim.

(* the premise Redisc follows from two elementary facts: the adapter maps the empty text to the empty text (an
   AdapterOK fact, H0), and upper-case letters are in the deny list (C10_deny_upper / C10_valid_deny: true of every
   deny list the API can build).  The third ingredient of redisc_holds (Proofs/Idna_Redisc.v), the
   characterisation of has_punycode_prefix on ASCII text (XnPrefixSpec), is the theorem C10_xn_prefix. *)
Theorem C11_redisc : forall A cfg deny,
  map_normalize A [] = [] -> DenyUpper deny -> Redisc A cfg deny.
Proof. exact redisc_of_adapter. Qed.
Check C11_redisc : forall A cfg deny,
  map_normalize A [] = [] -> DenyUpper deny -> Redisc A cfg deny.
Print Assumptions C11_redisc.

(* C11_same_verdict_partial: the two directions of the same verdict under Redisc, without excluding Known_C11:
   mark-errors error => fail-fast error; fail-fast error => mark-errors error,
   or (only without debug assertions) the marking run returned Passthrough with had_errors set *)
Theorem C11_same_verdict_partial : forall A cfg d deny hy p b t e, Redisc A cfg deny ->
  to_user_interface A cfg d deny hy p = UI b t e ->
  (e = true -> to_ascii A cfg d deny hy DIgnore = Err) /\
  (to_ascii A cfg d deny hy DIgnore = Err -> e = true \/ (cfg = false /\ b = true /\ t = d)).
Proof.
  intros A cfg d deny hy p b t e HR H. split.
  - intros ->. exact (Idna_SimRun.mark_err_ff_err A cfg d deny hy p b t HR H).
  - intros Ha. exact (Idna_SimRun.ff_err_mark_err A cfg d deny hy p b t e HR Ha H).
Qed.
Check C11_same_verdict_partial : forall A cfg d deny hy p b t e, Redisc A cfg deny ->
  to_user_interface A cfg d deny hy p = UI b t e ->
  (e = true -> to_ascii A cfg d deny hy DIgnore = Err) /\
  (to_ascii A cfg d deny hy DIgnore = Err -> e = true \/ (cfg = false /\ b = true /\ t = d)).
Print Assumptions C11_same_verdict_partial.

(* THE SAME VERDICT (C11_same_verdict_statement): for every byte string, every deny list the API can build,
   every hyphen mode and every output policy, outside the class Known_C11 of findings F-C11-1 / F-C11-2 and when
   neither call panics, the fail-fast to_ascii reports an error exactly when the mark-errors to_user_interface does.
   Only premise about the adapter: it maps the empty text to the empty text (AdapterOK H0, sampled by the harness). *)
Theorem C11_same_verdict : forall A cfg, map_normalize A [] = [] -> C11_same_verdict_statement A cfg.
Proof. exact c11_same_verdict_full. Qed.
Check C11_same_verdict : forall A cfg, map_normalize A [] = [] -> forall d deny hy p, bytes d -> valid_deny deny ->
  Known_C11 A cfg d deny hy = false ->
  is_panic (to_ascii A cfg d deny hy DIgnore) = false -> ui_panics (to_user_interface A cfg d deny hy p) = false ->
  res_err (to_ascii A cfg d deny hy DIgnore) = ui_err (to_user_interface A cfg d deny hy p).
Print Assumptions C11_same_verdict.

(* the adapter premise of C11_same_verdict cannot be dropped: with an adapter that maps the empty text to "a", the
   label "xn--a-" is an error for to_ascii and no error for to_unicode, outside Known_C11 *)
Theorem C11_same_verdict_unconditional_refuted : exists A, forall cfg, ~ C11_same_verdict_statement A cfg.
Proof. exact c11_same_verdict_unconditional_refuted. Qed.
Check C11_same_verdict_unconditional_refuted : exists A, forall cfg, ~ C11_same_verdict_statement A cfg.
Print Assumptions C11_same_verdict_unconditional_refuted.

(* the step behind it: when the marking run of process_inner has set had_errors, then outside Known_C11 process ends
   in a validity error, a sink error or a panic - never in Passthrough or WroteToSink (any sinks, any policy) *)
Theorem C11_mark_err_status : forall A cfg d deny hy p k1 k2 w ptu bd db ap,
  process_inner A cfg false hy deny d = IRes ptu bd true db ap -> Known_C11 A cfg d deny hy = false ->
  match fst (fst (process A cfg false p d deny hy k1 k2 w)) with PPassthrough | PWroteToSink => False | _ => True end.
Proof. exact mark_err_status. Qed.
Check C11_mark_err_status : forall A cfg d deny hy p k1 k2 w ptu bd db ap,
  process_inner A cfg false hy deny d = IRes ptu bd true db ap -> Known_C11 A cfg d deny hy = false ->
  match fst (fst (process A cfg false p d deny hy k1 k2 w)) with PPassthrough | PWroteToSink => False | _ => True end.
Print Assumptions C11_mark_err_status.

(* in the marking run had_errors is set exactly when domain_buffer contains U+FFFD (every adapter, every input):
   the debug assertion of uts46.rs:789 cannot fire *)
Theorem C11_had_errors_exact : forall A cfg hy deny d ptu bd he db ap,
  process_inner A cfg false hy deny d = IRes ptu bd he db ap -> ptu <> len d -> he = existsb is_fffd db.
Proof. exact mark_he_exact. Qed.
Check C11_had_errors_exact : forall A cfg hy deny d ptu bd he db ap,
  process_inner A cfg false hy deny d = IRes ptu bd he db ap -> ptu <> len d -> he = existsb is_fffd db.
Print Assumptions C11_had_errors_exact.

(* THE U+FFFD CLAUSES, for EVERY adapter (no premise), every byte string, every deny list, hyphen mode and
   output policy.  (1) C11_err_fffd_statement: outside Known_C11, an error reported by to_user_interface / to_unicode
   is visible as a U+FFFD in the returned text.  (2) C11_ok_no_fffd_statement: a text returned without error contains
   no U+FFFD. *)
Theorem C11_err_fffd : forall A cfg, C11_err_fffd_statement A cfg.
Proof. exact c11_err_fffd_full. Qed.
Check C11_err_fffd : forall A cfg d deny hy p, bytes d -> valid_deny deny -> Known_C11 A cfg d deny hy = false ->
  ui_err (to_user_interface A cfg d deny hy p) = true -> In FFFD (ui_text (to_user_interface A cfg d deny hy p)).
Print Assumptions C11_err_fffd.

Theorem C11_ok_no_fffd : forall A cfg, C11_ok_no_fffd_statement A cfg.
Proof. exact c11_ok_no_fffd_full. Qed.
Check C11_ok_no_fffd : forall A cfg d deny hy p b t, bytes d -> valid_deny deny ->
  to_user_interface A cfg d deny hy p = UI b t false -> ~ In FFFD t.
Print Assumptions C11_ok_no_fffd.

(* F-C11-2: inside Known_C11 the verdicts differ (no debug assertions) / the marking run panics (with) *)
Theorem C11_same_verdict_refuted : exists A d deny hy p,
  Known_C11 A false d deny hy = true /\
  to_ascii A false d deny hy DIgnore = Err /\
  to_user_interface A false d deny hy p = UI true d false /\
  to_user_interface A true d deny hy p = UIPanic 899.
Proof. exists toy, W_C11_2, DENY_EMPTY, HAllow, never_unicode. exact w_c11_2. Qed.
Check C11_same_verdict_refuted : exists A d deny hy p,
  Known_C11 A false d deny hy = true /\
  to_ascii A false d deny hy DIgnore = Err /\
  to_user_interface A false d deny hy p = UI true d false /\
  to_user_interface A true d deny hy p = UIPanic 899.
Print Assumptions C11_same_verdict_refuted.

(* F-C11-1: inside Known_C11 an error is reported without U+FFFD in the display text *)
Theorem C11_err_fffd_refuted : exists A d deny hy, forall cfg,
  Known_C11 A cfg d deny hy = true /\
  ui_err (to_unicode A cfg d deny hy) = true /\ ~ In FFFD (ui_text (to_unicode A cfg d deny hy)).
Proof.
  exists toy, W_C11_1, DENY_EMPTY, HAllow. intros cfg. destruct (w_c11_1 cfg) as [H1 H2].
  split; [exact H1|]. rewrite H2. split; [reflexivity|]. cbn [ui_text In]. unfold FFFD, REPLACEMENT. lia.
Qed.
Check C11_err_fffd_refuted : exists A d deny hy, forall cfg,
  Known_C11 A cfg d deny hy = true /\
  ui_err (to_unicode A cfg d deny hy) = true /\ ~ In FFFD (ui_text (to_unicode A cfg d deny hy)).
Print Assumptions C11_err_fffd_refuted.

(* with debug assertions and had_errors set, the output walk never ends in Passthrough *)
Theorem C11_no_pass_with_errors_dbg : forall ff p d tld bd labels aps seen pte flushed huo,
  snd (walk1 true ff p d tld bd true labels aps seen pte flushed huo) <> WPass.
Proof. exact walk1_no_pass_dbg. Qed.
Check C11_no_pass_with_errors_dbg : forall ff p d tld bd labels aps seen pte flushed huo,
  snd (walk1 true ff p d tld bd true labels aps seen pte flushed huo) <> WPass.
Print Assumptions C11_no_pass_with_errors_dbg.

(* C11_passthrough_partial: the Passthrough of the fastest tier only (C11_passthrough below has every Passthrough):
   lower-case letters and dots only; every mode returns Passthrough
   and the input is its own ToASCII and display form *)
Theorem C11_passthrough_partial : forall A cfg ff p d deny hy k1 k2 w, bytes d -> fast_tier d d = None ->
  process A cfg ff p d deny hy k1 k2 w = (PPassthrough, [], []) /\
  Forall lower_or_dot d /\
  to_ascii A cfg d deny hy DIgnore = Ok (true, d) /\
  to_user_interface A cfg d deny hy p = UI true d false.
Proof.
  intros A cfg ff p d deny hy k1 k2 w Hb H. split; [exact (process_fast A cfg ff p d deny hy k1 k2 w H)|].
  split; [exact (fast_tier_none d Hb d H)|]. split; [exact (to_ascii_fast A cfg d deny hy H)|exact (to_ui_fast A cfg d deny hy p H)].
Qed.
Check C11_passthrough_partial : forall A cfg ff p d deny hy k1 k2 w, bytes d -> fast_tier d d = None ->
  process A cfg ff p d deny hy k1 k2 w = (PPassthrough, [], []) /\
  Forall lower_or_dot d /\
  to_ascii A cfg d deny hy DIgnore = Ok (true, d) /\
  to_user_interface A cfg d deny hy p = UI true d false.
Print Assumptions C11_passthrough_partial.

(* THE FIRST WALK (uts46.rs 802-913), both error modes, every policy, both build configurations, every text the sink
   receives: under the positional invariant of process_inner (one already_punycode entry per label; while the prefix is
   unflushed, domain_name = P ++ the input labels the entries stand for, |P| = passthrough_up_to; fail-fast: no U+FFFD
   in the labels) the walk
     - panics exactly when the Punycode encoder fails on a label that must be encoded (outs = inr site), or - with
       debug assertions and had_errors - where it would return Passthrough (813 / 844 / 899: finding F-C11-2);
     - returns Passthrough exactly when no label forces a write (stays), and then the input is its own output;
     - otherwise writes P ++ the per-label outputs joined by dots (out_label: MixedCaseAscii m -> m lower-cased;
       written as Unicode -> the label; MixedCasePunycode m -> m lower-cased; else "xn--" ++ Punycode(label)) and
       reports had_unicode_output = huo_fin.
   The sites 810, 830, 885 are unreachable; the first premise excludes the arm 805 of the model, the second 852.
   Post1 (Proofs/Idna_WalkFun.v) is written out in the Check. *)
Theorem C11_walk1_functional : forall cfg d he ff p tld bidi labels aps seen pte flushed huo P rl,
  length labels = length aps ->
  (ff = true -> efffd labels = false) ->
  (flushed = false -> labels <> [] /\ d = P ++ tailtext seen rl /\ len P = pte /\ cover aps rl) ->
  Post1 cfg d he flushed P (stays (uni1 ff p tld bidi) labels aps) (outs cfg (uni1 ff p tld bidi) labels aps) seen
        (huo_fin ff p tld bidi huo labels aps) (walk1 cfg ff p d tld bidi he labels aps seen pte flushed huo).
Proof. exact walk1_spec. Qed.
Check C11_walk1_functional : forall cfg d he ff p tld bidi labels aps seen pte flushed huo P rl,
  length labels = length aps ->
  (ff = true -> efffd labels = false) ->
  (flushed = false -> labels <> [] /\ d = P ++ tailtext seen rl /\ len P = pte /\ cover aps rl) ->
  match outs cfg (uni1 ff p tld bidi) labels aps with
  | inl os =>
      if negb flushed && stays (uni1 ff p tld bidi) labels aps then
        P ++ tailtext seen os = d /\
        (if cfg && he
         then exists s, snd (walk1 cfg ff p d tld bidi he labels aps seen pte flushed huo) = WPanic s /\ (s = 813 \/ s = 844 \/ s = 899)
         else snd (walk1 cfg ff p d tld bidi he labels aps seen pte flushed huo) = WPass)
      else snd (walk1 cfg ff p d tld bidi he labels aps seen pte flushed huo) = WEnd (huo_fin ff p tld bidi huo labels aps) /\
           concat (fst (walk1 cfg ff p d tld bidi he labels aps seen pte flushed huo)) =
             (if flushed then tailtext seen os else P ++ tailtext seen os)
  | inr s => snd (walk1 cfg ff p d tld bidi he labels aps seen pte flushed huo) = WPanic s
  end.
Print Assumptions C11_walk1_functional.

(* THE SECOND WALK (uts46.rs 925-1026, the ASCII sink of the dual-output mode): same invariant; it writes P ++ the
   per-label outputs of the never-Unicode policy joined by dots, or panics exactly when the encoder fails; the sites
   933, 949, 992 are unreachable (the length premise excludes the arm 928 of the model). *)
Theorem C11_walk2_functional : forall cfg d he labels aps seen pte flushed P rl,
  length labels = length aps ->
  (flushed = false -> d = P ++ tailtext seen rl /\ len P = pte /\ cover aps rl) ->
  Post2 flushed P (outs cfg is_ascii_l labels aps) seen (walk2 cfg d he labels aps seen pte flushed).
Proof. exact walk2_spec. Qed.
Check C11_walk2_functional : forall cfg d he labels aps seen pte flushed P rl,
  length labels = length aps ->
  (flushed = false -> d = P ++ tailtext seen rl /\ len P = pte /\ cover aps rl) ->
  match outs cfg is_ascii_l labels aps with
  | inl os => snd (walk2 cfg d he labels aps seen pte flushed) = WEnd false /\
              concat (fst (walk2 cfg d he labels aps seen pte flushed)) = (if flushed then tailtext seen os else P ++ tailtext seen os)
  | inr s => snd (walk2 cfg d he labels aps seen pte flushed) = WPanic s
  end.
Print Assumptions C11_walk2_functional.

(* the fail-fast run of process_inner, for EVERY adapter (no rediscovery premise): it takes the early return, or it
   returns exactly what the marking run returns, and that run is error-free *)
Theorem C11_inner_wsim : forall A cfg hy deny d,
  inner_wsim (process_inner A cfg true hy deny d) (process_inner A cfg false hy deny d).
Proof. exact process_inner_wsim. Qed.
Check C11_inner_wsim : forall A cfg hy deny d,
  process_inner A cfg true hy deny d = I_EXIT \/
  match process_inner A cfg false hy deny d with
  | IRes ptu b he db ap => he = false /\ process_inner A cfg true hy deny d = process_inner A cfg false hy deny d
  | IPanic s => process_inner A cfg true hy deny d = process_inner A cfg false hy deny d
  end.
Print Assumptions C11_inner_wsim.

(* THE DUAL-OUTPUT MODE (C11_dual_statement): for every byte string, every deny list the API can build, every
   hyphen mode and every output policy, when process with an ASCII sink (mark-errors mode) reports WroteToSink, the
   Unicode text is what to_user_interface returns for the same arguments (without error), and to_ascii of the same
   name succeeds with the text of the ASCII sink - or, when no label was written as Unicode (the ASCII sink is then
   left empty), with the text of the first sink.  Only premise about the adapter: H0 (sampled by the harness). *)
Theorem C11_dual : forall A cfg, map_normalize A [] = [] -> C11_dual_statement A cfg.
Proof. exact c11_dual_full. Qed.
Check C11_dual : forall A cfg, map_normalize A [] = [] -> forall d deny hy p s a, bytes d -> valid_deny deny ->
  process A cfg false p d deny hy None None true = (PWroteToSink, s, a) ->
  to_user_interface A cfg d deny hy p = UI false s false /\
  exists b, to_ascii A cfg d deny hy DIgnore = Ok (b, match a with [] => s | _ => a end).
Print Assumptions C11_dual.

(* the adapter premise of C11_dual cannot be dropped (same adapter and name as C11_same_verdict_unconditional_refuted) *)
Theorem C11_dual_unconditional_refuted : exists A, forall cfg, ~ C11_dual_statement A cfg.
Proof. exact c11_dual_unconditional_refuted. Qed.
Check C11_dual_unconditional_refuted : exists A, forall cfg, ~ C11_dual_statement A cfg.
Print Assumptions C11_dual_unconditional_refuted.

(* where the two runs of process_inner can differ, exactly: the fail-fast run takes the early return and the marking
   run has set had_errors or appended an AalOther entry to already_punycode (or panicked) - or the two runs return
   the same, error-free result.  Every adapter, no premise. *)
Theorem C11_inner_osim : forall A cfg hy deny d,
  inner_osim (process_inner A cfg true hy deny d) (process_inner A cfg false hy deny d).
Proof. exact process_inner_osim. Qed.
Check C11_inner_osim : forall A cfg hy deny d,
  (process_inner A cfg true hy deny d = I_EXIT /\
   match process_inner A cfg false hy deny d with
   | IRes _ _ he _ ap => he = true \/ In AalOther ap
   | IPanic _ => True
   end) \/
  match process_inner A cfg false hy deny d with
  | IRes ptu b he db ap => he = false /\ process_inner A cfg true hy deny d = process_inner A cfg false hy deny d
  | IPanic s => process_inner A cfg true hy deny d = process_inner A cfg false hy deny d
  end.
Print Assumptions C11_inner_osim.

(* THE PASSTHROUGH OUTCOME (C11_passthrough_statement), for EVERY adapter (no premise): in every mode
   (fail-fast or mark-errors, any policy, any sinks, with or without ASCII sink), outside Known_C11 (finding F-C11-2,
   exactly), Passthrough is returned only for an ASCII input that is its own ToASCII result (to_ascii returns it
   borrowed).  The premise H0 of the other clauses is not needed here: a Passthrough result has no AalOther entry,
   and such a marking run is reproduced by the fail-fast run (C11_inner_osim). *)
Theorem C11_passthrough : forall A cfg, C11_passthrough_statement A cfg.
Proof. exact c11_passthrough_all. Qed.
Check C11_passthrough : forall A cfg ff p d deny hy k1 k2 w s a, bytes d -> valid_deny deny ->
  process A cfg ff p d deny hy k1 k2 w = (PPassthrough, s, a) ->
  Known_C11 A cfg d deny hy = false ->
  ascii d /\ to_ascii A cfg d deny hy DIgnore = Ok (true, d).
Print Assumptions C11_passthrough.

Theorem C11_passthrough_ascii : forall A cfg ff p d deny hy k1 k2 w s a, bytes d ->
  process A cfg ff p d deny hy k1 k2 w = (PPassthrough, s, a) -> ascii d.
Proof. exact passthrough_ascii_input. Qed.
Check C11_passthrough_ascii : forall A cfg ff p d deny hy k1 k2 w s a, bytes d ->
  process A cfg ff p d deny hy k1 k2 w = (PPassthrough, s, a) -> ascii d.
Print Assumptions C11_passthrough_ascii.

(* C11_dual / C11_passthrough: the toy adapter meets H0; a dual-output call that writes both sinks ("bücher.DE"), one
   whose ASCII sink stays empty ("A.b"), and a Passthrough beyond the fastest tier ("1a.xn--bcher-kva") *)
Example C11_dual_premises_hold :
  map_normalize toy [] = [] /\
  process toy true false always_unicode [98; 195; 188; 99; 104; 101; 114; 46; 68; 69] DENY_EMPTY HAllow None None true
    = (PWroteToSink, [98; 252; 99; 104; 101; 114; 46; 100; 101],
       [120; 110; 45; 45; 98; 99; 104; 101; 114; 45; 107; 118; 97; 46; 100; 101]) /\
  process toy true false always_unicode [65; 46; 98] DENY_EMPTY HAllow None None true = (PWroteToSink, [97; 46; 98], []) /\
  process toy true false never_unicode [49; 97; 46; 120; 110; 45; 45; 98; 99; 104; 101; 114; 45; 107; 118; 97] DENY_EMPTY HAllow None None true
    = (PPassthrough, [], []) /\
  Known_C11 toy true [49; 97; 46; 120; 110; 45; 45; 98; 99; 104; 101; 114; 45; 107; 118; 97] DENY_EMPTY HAllow = false.
Proof. vm_compute. repeat split; reflexivity. Qed.

(* regenerated constants used by the marking sites: is_bidi threshold, joiner range, map_transitional table *)
Theorem C11_consts :
  T_IDNA_BIDI_BELOW = 1424 /\ T_IDNA_JOINER_LO = 8204 /\ T_IDNA_JOINER_HI = 8205 /\
  T_IDNA_TRANS = [(223, [115; 115]); (7838, [115; 115]); (962, [963]); (8204, []); (8205, [])].
Proof. exact idna_ranges. Qed.
Check C11_consts :
  T_IDNA_BIDI_BELOW = 1424 /\ T_IDNA_JOINER_LO = 8204 /\ T_IDNA_JOINER_HI = 8205 /\
  T_IDNA_TRANS = [(223, [115; 115]); (7838, [115; 115]); (962, [963]); (8204, []); (8205, [])].
Print Assumptions C11_consts.

(* non-vacuity: a name with an error (both modes err, U+FFFD shown) and one without, in the model *)
Example C11_premises_hold :
  map_normalize toy [] = [] /\ valid_deny DENY_STD3 /\ Known_C11 toy true [97; 45; 46; 98] DENY_STD3 HCheck = false /\
  to_ascii toy true [97; 45; 46; 98] DENY_STD3 HCheck DIgnore = Err /\
  to_unicode toy true [97; 45; 46; 98] DENY_STD3 HCheck = UI false [97; 65533; 46; 98] true /\
  to_ascii toy true [65; 46; 98] DENY_STD3 HCheck DIgnore = Ok (false, [97; 46; 98]).
Proof. split; [reflexivity|]. split; [left; reflexivity|]. vm_compute. repeat split; reflexivity. Qed.
