(* Properties/C20.v - Unix file paths <-> file: URLs.  Statements of property C20; the lemmas are in
   Proofs/C20_*.v (C20_dir, C20_simple_names, C20_host pair two of them; the example C20_premises_hold is computed).
   Paths are byte strings; `path_components`, `path_is_absolute`, `path_eq` are the std::path section of
   Model/FilePath.v (modelled, not verified; sampled against std by the harness).
   C20_rt, C20_rel, C20_dir, C20_host, C20_to put no NUL condition on the path: the model (like the Rust code)
   treats a NUL byte as any other byte.  C20_dir_join and C20_simple_names are stated for plain_name f, which
   forbids NUL in the name f; the proof (Proofs/C20_Plain.plain_name_ref) does not use that conjunct. *)
From RU Require Import Base.Prelude Model.PercentEncoding
  Model.HostT Model.UrlRecord Model.Parser Model.FilePath
  Proofs.C20_Path Proofs.C20_RT Proofs.C20_Dir Proofs.C20_Plain.

(* Round trip.  For every absolute path p (any bytes): from_file_path succeeds and builds exactly the
   record  "file://" ++ url_path_of (kept p)  with offsets 4,7,7,7,7 and no host/port/query/fragment,
   where kept p = the pieces of p between '/' other than "" and "." and url_path_of writes "/" followed by
   the SPECIAL_PATH_SEGMENT-encoding of each piece ("/" alone for the root); the record's path_segments are
   those encodings; to_file_path succeeds on it (for both build configurations) and the resulting path has
   the same std::path components as p, i.e. is == p as a PathBuf. *)
Theorem C20_rt : forall dbg p, bytes p -> path_is_absolute p = true ->
  exists u q,
    from_file_path p = FOk u
    /\ u = mkUrl (s_file_css ++ url_path_of (kept p)) 4 7 7 7 HI_None None 7 None None
    /\ path_segments u = Some (Some (segments_of (kept p)))
    /\ to_file_path dbg u = FOk q
    /\ path_components q = path_components p
    /\ path_eq q p = true.
Proof. exact file_path_round_trip. Qed.
Check C20_rt : forall dbg p, bytes p -> path_is_absolute p = true ->
  exists u q,
    from_file_path p = FOk u
    /\ u = mkUrl (s_file_css ++ url_path_of (kept p)) 4 7 7 7 HI_None None 7 None None
    /\ path_segments u = Some (Some (segments_of (kept p)))
    /\ to_file_path dbg u = FOk q
    /\ path_components q = path_components p
    /\ path_eq q p = true.
Print Assumptions C20_rt.

(* Relative paths are rejected by both constructors. *)
Theorem C20_rel : forall p, path_is_absolute p = false ->
  from_file_path p = FErr /\ from_directory_path p = FErr.
Proof. exact from_file_path_rel. Qed.
Check C20_rel : forall p, path_is_absolute p = false ->
  from_file_path p = FErr /\ from_directory_path p = FErr.
Print Assumptions C20_rel.

(* from_directory_path: whenever it succeeds the serialization ends with '/', and for an absolute path
   the record is the from_file_path record with exactly one '/' after the last component. *)
Theorem C20_dir : forall p,
  (forall u, from_directory_path p = FOk u -> ends_with_byte 47 (ser u) = true)
  /\ (bytes p -> path_is_absolute p = true ->
      from_directory_path p =
        FOk (mkUrl (s_file_css ++ join_slash (map enc (kept p)) ++ [47]) 4 7 7 7 HI_None None 7 None None)).
Proof.
  intros p. split; [exact (directory_trailing_slash p) | exact (from_directory_path_spec p)].
Qed.
Check C20_dir : forall p,
  (forall u, from_directory_path p = FOk u -> ends_with_byte 47 (ser u) = true)
  /\ (bytes p -> path_is_absolute p = true ->
      from_directory_path p =
        FOk (mkUrl (s_file_css ++ join_slash (map enc (kept p)) ++ [47]) 4 7 7 7 HI_None None 7 None None)).
Print Assumptions C20_dir.

(* Joining a file name.  The reference handed to Url::join is name_reference f = the
   SPECIAL_PATH_SEGMENT-encoding of the name (what from_file_path would write for that component; for
   names over [A-Za-z0-9._-] it is the name itself).  For every plain name (non-empty, no NUL, no '/',
   not "." or "..", not of the form  alpha (alnum|+|-|.)* ':' ...  which the parser reads as an absolute
   URL, and not the drive letter "X|"), every absolute directory path p, both build configurations and
   whatever host parser/serialiser the URL parser model is run with: the join succeeds, to_file_path
   succeeds on the result, and the path it gives has the components of p followed by the component f,
   i.e. it is == Path::join(p, f) as a PathBuf. *)
Theorem C20_dir_join :
  forall dbg host_parse host_parse_opaque host_display p f,
    bytes p -> path_is_absolute p = true -> plain_name f = true ->
    exists d u q,
      from_directory_path p = FOk d
      /\ url_join dbg host_parse host_parse_opaque host_display d (name_reference f) = POk u
      /\ to_file_path dbg u = FOk q
      /\ path_components q = path_components p ++ [CNormal f]
      /\ path_eq q (path_join p f) = true
      /\ dir_join_to_path dbg host_parse host_parse_opaque host_display p (name_reference f) = FOk q.
Proof. exact dir_join_plain. Qed.
Check C20_dir_join :
  forall dbg host_parse host_parse_opaque host_display p f,
    bytes p -> path_is_absolute p = true -> plain_name f = true ->
    exists d u q,
      from_directory_path p = FOk d
      /\ url_join dbg host_parse host_parse_opaque host_display d (name_reference f) = POk u
      /\ to_file_path dbg u = FOk q
      /\ path_components q = path_components p ++ [CNormal f]
      /\ path_eq q (path_join p f) = true
      /\ dir_join_to_path dbg host_parse host_parse_opaque host_display p (name_reference f) = FOk q.
Print Assumptions C20_dir_join.

(* the names over [A-Za-z0-9._-] other than "." and ".." are plain and are their own reference *)
Theorem C20_simple_names : forall f, simple_name f = true -> plain_name f = true /\ name_reference f = f.
Proof. intros f H. split; [exact (simple_is_plain f H) | exact (simple_name_reference f H)]. Qed.
Check C20_simple_names : forall f, simple_name f = true -> plain_name f = true /\ name_reference f = f.
Print Assumptions C20_simple_names.

(* to_file_path and the host: Err when the path has no segments, Err when the host is anything but
   absent or the domain "localhost"; and whenever it succeeds, the host is one of those two and the result
   is '/' + percent-decoded segment, for each segment, plus the trailing '/' of the drive-letter rule. *)
Theorem C20_host : forall dbg u,
  (path_segments u = Some None -> to_file_path dbg u = FErr)
  /\ (forall segs h, path_segments u = Some (Some segs) -> host_of u = Some (Some h) ->
        h <> HDomain s_localhost -> to_file_path dbg u = FErr)
  /\ (forall q, to_file_path dbg u = FOk q ->
        exists segs, path_segments u = Some (Some segs)
          /\ (host_of u = Some None \/ host_of u = Some (Some (HDomain s_localhost)))
          /\ q = drive_letter_hack (join_slash (map decode segs))).
Proof.
  intros dbg u. split; [exact (to_file_path_no_segments dbg u)|].
  split; [exact (to_file_path_bad_host dbg u) | exact (to_file_path_ok_inv dbg u)].
Qed.
Check C20_host : forall dbg u,
  (path_segments u = Some None -> to_file_path dbg u = FErr)
  /\ (forall segs h, path_segments u = Some (Some segs) -> host_of u = Some (Some h) ->
        h <> HDomain s_localhost -> to_file_path dbg u = FErr)
  /\ (forall q, to_file_path dbg u = FOk q ->
        exists segs, path_segments u = Some (Some segs)
          /\ (host_of u = Some None \/ host_of u = Some (Some (HDomain s_localhost)))
          /\ q = drive_letter_hack (join_slash (map decode segs))).
Print Assumptions C20_host.

(* conversely: segments present, host absent or localhost, scheme slice in range => Ok (no panic, no Err) *)
Theorem C20_to : forall dbg u segs, path_segments u = Some (Some segs) ->
  (host_of u = Some None \/ host_of u = Some (Some (HDomain s_localhost))) -> scheme u <> None ->
  to_file_path dbg u = FOk (drive_letter_hack (join_slash (map decode segs))).
Proof. exact to_file_path_ok. Qed.
Check C20_to : forall dbg u segs, path_segments u = Some (Some segs) ->
  (host_of u = Some None \/ host_of u = Some (Some (HDomain s_localhost))) -> scheme u <> None ->
  to_file_path dbg u = FOk (drive_letter_hack (join_slash (map decode segs))).
Print Assumptions C20_to.

(* non-vacuity: concrete paths and names go through the model as the theorems say; and two names outside
   plain_name show what the class excludes: "C|" under /d comes back as /C:/ and "a:b" is an absolute URL *)
Definition ex_hp (_ : list N) : result host := Err EmptyHost.
Definition ex_hd (_ : host) : list N := [].
Example C20_premises_hold :
  (* "/tmp//a b/./%.txt/" *)
  (let p := [47;116;109;112;47;47;97;32;98;47;46;47;37;46;116;120;116;47] in
   bytes p /\ path_is_absolute p = true
   /\ from_file_path p = FOk (mkUrl (s_file_css ++ [47;116;109;112;47;97;37;50;48;98;47;37;50;53;46;116;120;116]) 4 7 7 7 HI_None None 7 None None)
   /\ match from_file_path p with FOk u => to_file_path true u | _ => FErr end = FOk [47;116;109;112;47;97;32;98;47;37;46;116;120;116])
  (* "/var/www" + "index.html" *)
  /\ simple_name [105;110;100;101;120;46;104;116;109;108] = true
  /\ dir_join_to_path true ex_hp ex_hp ex_hd [47;118;97;114;47;119;119;119] (name_reference [105;110;100;101;120;46;104;116;109;108])
     = FOk [47;118;97;114;47;119;119;119;47;105;110;100;101;120;46;104;116;109;108]
  (* a plain, not simple name: "a b?#\\" + 0xFF under "/d" *)
  /\ plain_name [97;32;98;63;35;92;255] = true /\ simple_name [97;32;98;63;35;92;255] = false
  /\ dir_join_to_path true ex_hp ex_hp ex_hd [47;100] (name_reference [97;32;98;63;35;92;255]) = FOk [47;100;47;97;32;98;63;35;92;255]
  (* outside the class *)
  /\ plain_name [67;124] = false
  /\ dir_join_to_path true ex_hp ex_hp ex_hd [47;100] (name_reference [67;124]) = FOk [47;67;58;47]
  /\ plain_name [97;58;98] = false
  /\ dir_join_to_path true ex_hp ex_hp ex_hd [47;100] (name_reference [97;58;98]) = FErr
  (* host *)
  /\ to_file_path true (mkUrl (s_file_css ++ [104;47;120]) 4 7 7 8 HI_Domain None 8 None None) = FErr.
Proof. vm_compute. repeat split; try reflexivity; repeat constructor. Qed.
