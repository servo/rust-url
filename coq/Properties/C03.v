(* Properties/C03.v - accessors describe one consistent decomposition of the serialization.
   Stated for every record satisfying the executable structural invariant wf_b (Model/WF.v) and for
   both build configurations (dbg).  That reachable Urls satisfy wf_b (the reachability half, C02's L1/L2)
   is section R below: proved for EVERY parse / join result (C03_parse_reachability; file scheme included), for
   the records of the file-path constructors and along ALL 19 mutators outside a computable exclusion
   (C03_reachability over reach03a, section R2; C03_accessors_reach is the property text's first two sentences
   for every such record).  Sections R4 / R5: base_ok, auth_end_ok and "no default port stored" are invariants
   (inv03), so joins need no premise and the exclusions are exactly the known classes; for C02's own quantifier
   Reachable3 (known_step2 on the call, query_pairs_mut sessions) every record satisfies wf_b /\ host_text_ok
   (C03_reachability_full, C03_accessors_reachable).  The formulation C03_reachability_full_statement
   (over C02_Reach.Reachable, HostWf alone) is refuted.  Section V: the remaining "views agree" clauses; section V2: host() / host_str() / domain() /
   has_host() agree on every reached record (the IP host text invariant KT, which wf_b does not carry); the serde / FromStr
   round trips for the records of C02's ReachC4 (C03_round_trips_reach). *)
From Coq Require Import String.
From RU Require Import Base.Prelude Base.Utf8 Model.HostT Model.UrlRecord Model.Parser Model.Setters Model.WF
  Proofs.ListN Proofs.C03_WF Proofs.C06_Suffix Proofs.C06_HostNone Proofs.C06_Host Proofs.C06_Segments Proofs.C06_Path
  Proofs.C06_Main Proofs.C02_Reach Proofs.C02_AuthParts Proofs.C02_AuthMain Proofs.C04_ParseTotal
  Proofs.C03_ReachParts Proofs.C03_Reach Proofs.C03_ReachFile Proofs.C03_ReachHost Proofs.C03_ReachHist
  Model.FilePath Proofs.C06_Path Proofs.C06_Host Proofs.C05_Enc Proofs.C03_ReachAll Proofs.C03_Reachability
  Proofs.C03_ReachAscii Proofs.C03_ReachEx Proofs.C03_Views Proofs.C03_PortInv Proofs.C03_PortParse Proofs.C03_AuthEnd Proofs.C03_ReachKnown
  Proofs.C05_AuthOfs Proofs.C02_Hist Proofs.C02_SetHostCanon Proofs.C02_Reach3 Proofs.C03_ParseFront Proofs.C03_ReachJoin Proofs.C03_ReachFull Proofs.C03_ReachFullEx Proofs.C03_ReachModel
  Proofs.C02_Reach5 Proofs.C03_ReachFin Proofs.C03_ReachFinEx Proofs.C03_HostKind Proofs.C03_HostKindSteps Proofs.C03_HostKindModel.
Open Scope string_scope.
Open Scope N_scope.
Open Scope list_scope.
(* host_text_ok is C06's predicate on records (C02_Reach has a homonym on texts) *)
Local Notation host_text_ok := C06_Suffix.host_text_ok (only parsing).

(* every Position maps to an index inside the serialization: no Index impl can panic *)
Theorem C03_index : forall dbg u p, wf_b u = true ->
  exists i, position_index dbg u p = Some i /\ i <= nlen (ser u).
Proof. intros dbg u p H. exists (pidx u p). split; [apply position_index_eval; exact H | apply pidx_in_bounds; exact H]. Qed.
Check C03_index : forall dbg u p, wf_b u = true -> exists i, position_index dbg u p = Some i /\ i <= nlen (ser u).
Print Assumptions C03_index.

(* monotone in Position order (all 16 x 16 ordered pairs) *)
Theorem C03_monotone : forall dbg u p q i j, wf_b u = true -> (pos_rank p <= pos_rank q)%nat ->
  position_index dbg u p = Some i -> position_index dbg u q = Some j -> i <= j.
Proof.
  intros dbg u p q i j H Hr Hi Hj. rewrite position_index_eval in Hi, Hj by exact H.
  inversion Hi; inversion Hj; subst. apply pidx_monotone; assumption.
Qed.
Check C03_monotone : forall dbg u p q i j, wf_b u = true -> (pos_rank p <= pos_rank q)%nat ->
  position_index dbg u p = Some i -> position_index dbg u q = Some j -> i <= j.
Print Assumptions C03_monotone.

(* the Range / RangeFrom / RangeTo Index impls succeed and consecutive ranges re-concatenate;
   BeforeScheme..AfterFragment is the whole serialization.  (The serialization is ASCII - C05 - so no
   slice can split a character.) *)
Theorem C03_slices : forall dbg u, wf_b u = true ->
  (forall p q, (pos_rank p <= pos_rank q)%nat -> exists s, index_range dbg u p q = Some s)
  /\ (forall p, exists s t, index_to dbg u p = Some s /\ index_from dbg u p = Some t /\ s ++ t = ser u)
  /\ (forall p q r a b c, (pos_rank p <= pos_rank q)%nat -> (pos_rank q <= pos_rank r)%nat ->
        index_range dbg u p q = Some a -> index_range dbg u q r = Some b -> index_range dbg u p r = Some c ->
        a ++ b = c)
  /\ index_range dbg u BeforeScheme AfterFragment = Some (ser u).
Proof.
  intros dbg u H. repeat split.
  - intros p q Hr. eexists. apply index_range_eval; assumption.
  - intros p. do 2 eexists. split; [apply index_to_eval; exact H|]. split; [apply index_from_eval; exact H|].
    apply nfirstn_nskipn.
  - intros p q r a b c H1 H2. apply (ranges_concat dbg u H p q r H1 H2).
  - apply full_range. exact H.
Qed.
Print Assumptions C03_slices.

(* scheme ':' ['//' [username [':' password] '@'] host [':' port]] ['/.'] path ['?' query] ['#' fragment]
   assembled from the accessors is the serialization, byte for byte *)
Theorem C03_concat : forall dbg u, wf_b u = true ->
  exists sch un pw hs pth q f,
    scheme u = Some sch /\ username dbg u = Some un /\ password dbg u = Some pw /\ host_str u = Some hs
    /\ path u = Some pth /\ query dbg u = Some q /\ fragment dbg u = Some f
    /\ ser u =
       sch ++ (if has_authority_b u then s_css else [58])
       ++ un ++ (match pw with Some p => 58 :: p | None => [] end)
       ++ (if has_authority_b u && negb (username_end u =? host_start u) then [64] else [])
       ++ piece u (host_start u) (host_end u)
       ++ (match port u with Some p => 58 :: decimal p | None => [] end)
       ++ (if negb (has_authority_b u) && (path_start u =? scheme_end u + 3) then [47; 46] else [])
       ++ pth
       ++ (match q with Some x => 63 :: x | None => [] end)
       ++ (match f with Some x => 35 :: x | None => [] end)
    /\ (has_host u = true -> hs = Some (piece u (host_start u) (host_end u)))
    /\ (has_host u = false -> piece u (host_start u) (host_end u) = []).
Proof. intros dbg u H. apply accessors_reconcatenate. exact H. Qed.
Print Assumptions C03_concat.

(* overlapping views (for an IP host, host_str() against host() needs more than wf_b: section V2, C03_host_views) *)
Theorem C03_views : forall dbg u, wf_b u = true ->
  has_authority dbg u = Some (has_authority_b u)
  /\ (has_host u = true <-> exists h, host_of u = Some (Some h))
  /\ (has_host u = false -> host_str u = Some None /\ domain u = Some None)
  /\ (forall p, port u = Some p -> port_or_known_default u = Some (Some p))
  /\ (has_authority_b u = false -> has_host u = false /\ port u = None).
Proof.
  intros dbg u H. split; [apply has_authority_eval; exact H|]. split; [|split; [|split]].
  - unfold has_host, host_of. split.
    + intros Hh. destruct (hosti u) eqn:E; try discriminate.
      * destruct (host_str_eval u H) as []. unfold u_slice.
        pose proof (pidx_monotone u H BeforeHost AfterHost ltac:(cbn; lia)) as M.
        pose proof (pidx_in_bounds u H AfterHost) as B. cbn [pidx] in M, B.
        rewrite slice_o_some by assumption. cbn. eexists. reflexivity.
      * eexists. reflexivity.
      * eexists. reflexivity.
    + intros [h Hh]. destruct (hosti u); [discriminate | reflexivity | reflexivity | reflexivity].
  - intros Hh. unfold host_str, domain. rewrite Hh. unfold has_host in Hh. destruct (hosti u); try discriminate. split; reflexivity.
  - intros p Hp. unfold port_or_known_default. rewrite Hp. reflexivity.
  - intros Ha. pose proof (wf_noauth_facts u H Ha) as F. split; [|apply (nf_port F)].
    unfold has_host. rewrite (nf_host F). reflexivity.
Qed.
Print Assumptions C03_views.

(* R. reachability: parse results are well-formed *)
(* the connection of the theorems above with "every reachable Url", stated for any host functions and a base that
   only satisfies wf_b: *)
Definition C03_reachability_statement : Prop :=
  forall host_parse host_parse_opaque host_display ovr base input u,
    parse_url true host_parse host_parse_opaque host_display ovr base input = POk u ->
    (match base with Some b => wf_b b = true | None => True end) -> wf_b u = true.

(* it is false without a hypothesis on the host functions: with a Display for Host that starts with ':'
   the record for "a://x" has a ':' at username_end = host_start (not a defect of the crate: url::Host never
   prints such a text; the statement needs the hypothesis) *)
Theorem C03_reachability_statement_refuted : ~ C03_reachability_statement.
Proof.
  intros H. destruct no_host_hypothesis_witness as (u & Hp & _ & Hw).
  pose proof (H bad_hp bad_hp bad_hd None None (B "a://x") u Hp I) as W. rewrite W in Hw. discriminate.
Qed.
Print Assumptions C03_reachability_statement_refuted.

(* Hypothesis on the host functions, HostWf hp hpo hd (C03_ReachParts.v): the display of a host returned by hp
   or hpo, other than the empty host, is non-empty, does not start with ':' or '@' and does not end with '/';
   the empty host is displayed as nothing.  It follows from the round-trip hypothesis HostRT of C02 (hence from
   C02's HostOK). *)
Theorem C03_HostRT_HostWf : forall hp hpo hd, HostRT hp hpo hd -> HostWf hp hpo hd.
Proof. exact HostRT_HostWf. Qed.
Check C03_HostRT_HostWf : forall hp hpo hd, HostRT hp hpo hd -> HostWf hp hpo hd.
Print Assumptions C03_HostRT_HostWf.

(* EVERY record Parser::parse_url returns is well-formed when the file scheme is not involved
   (file_involved base input = false: the input has a scheme other than "file", or it has none and the scheme
   of the base is not "file"): with or without a base - absolute URLs of every non-file scheme and relative
   references of every kind ("", "?q", "#f", "//authority", "/path", "path", "http:path" against a base of
   the same special scheme) - for every input (no scalar-value condition), every query encoding override
   and both build configurations.  The base satisfies base_ok (wf_b, and if its scheme is special it is not
   cannot-be-a-base: C04_ParseTotal.v) and host_text_ok (C06: its host text, if any, is non-empty and does not
   start with ':' / '@'); the result satisfies the same two, i.e. C06's wfh. *)
Theorem C03_parse_wf : forall dbg hp hpo hd ovr base input u,
  HostWf hp hpo hd ->
  match base with Some b => base_ok b = true /\ host_text_ok b | None => True end ->
  file_involved base input = false ->
  parse_url dbg hp hpo hd ovr base input = POk u -> wf_b u = true /\ host_text_ok u.
Proof. intros dbg hp hpo hd ovr base input u HW. exact (parse_url_wf dbg hp hpo hd ovr HW base input u). Qed.
Check C03_parse_wf : forall dbg hp hpo hd ovr base input u,
  HostWf hp hpo hd ->
  match base with Some b => base_ok b = true /\ host_text_ok b | None => True end ->
  file_involved base input = false ->
  parse_url dbg hp hpo hd ovr base input = POk u -> wf_b u = true /\ host_text_ok u.
Print Assumptions C03_parse_wf.

(* the same for EVERY input and base, the file scheme included ("file://host/path", "file:/path", "file:path",
   drive letters in every spelling, references against a file base): no exclusion - the drive-letter quirks
   (Known_file_drive, F-C01-11) change WHICH record is produced, not its layout *)
Definition C03_parse_reachability_statement : Prop :=
  forall dbg hp hpo hd, HostWf hp hpo hd -> forall ovr base input u,
    match base with Some b => base_ok b = true /\ host_text_ok b | None => True end ->
    parse_url dbg hp hpo hd ovr base input = POk u -> wf_b u = true /\ host_text_ok u.

Theorem C03_parse_reachability : C03_parse_reachability_statement.
Proof. intros dbg hp hpo hd HW ovr base input u. exact (parse_url_wf_all dbg hp hpo hd ovr HW base input u). Qed.
Check C03_parse_reachability : forall dbg hp hpo hd, HostWf hp hpo hd -> forall ovr base input u,
    match base with Some b => base_ok b = true /\ host_text_ok b | None => True end ->
    parse_url dbg hp hpo hd ovr base input = POk u -> wf_b u = true /\ host_text_ok u.
Print Assumptions C03_parse_reachability.

(* histories: reach03 dbg hp hpo hd (C03_ReachHist.v) = parse and join results (a base is a reached record
   that satisfies base_ok), closed under set_fragment, set_query, set_port, set_password, set_username,
   set_scheme, set_host(None) (outside F-C06-5 / F-C02-2), set_ip_host (outside its known classes), set_path
   and path_segments_mut sessions on records with an authority.  Every such record satisfies
   wfh = wf_b /\ host_text_ok, the premise of the theorems above and of C06. *)
Theorem C03_reachability_partial : forall dbg hp hpo hd, HostWf hp hpo hd ->
  forall u, reach03 dbg hp hpo hd u -> wf_b u = true /\ host_text_ok u.
Proof. exact reach03_wfh. Qed.
Check C03_reachability_partial : forall dbg hp hpo hd, HostWf hp hpo hd ->
  forall u, reach03 dbg hp hpo hd u -> wf_b u = true /\ host_text_ok u.
Print Assumptions C03_reachability_partial.

(* hence, e.g., no Position index of a reached record can panic, and its accessors re-concatenate *)
Theorem C03_reachable_index : forall dbg hp hpo hd u p, HostWf hp hpo hd -> reach03 dbg hp hpo hd u ->
  exists i, position_index dbg u p = Some i /\ i <= nlen (ser u).
Proof. intros dbg hp hpo hd u p HW R. apply C03_index. exact (proj1 (reach03_wfh dbg hp hpo hd HW u R)). Qed.
Print Assumptions C03_reachable_index.

(* R2. every reachable Url: all 19 mutators, the file-path constructors *)
(* one call of any of the 19 mutators of C02's operation type (the nine Url setters, set_ip_host, a
   path_segments_mut session, the nine quirks setters), successful or failing, with Rust-typed arguments
   (op_args_ok: &str = scalar values, u16, IpAddr), on a record satisfying wfh = wf_b /\ host_text_ok, gives a
   record satisfying wfh - outside the COMPUTABLE exclusion excl03 u o u' (Proofs/C03_ReachAll.v), a boolean on
   the record before, the call and the record after:
     host setters (set_host(Some), set_ip_host, quirks set_host / set_hostname):
        has_marker u  [F-C03-5]  ||  has_authority u && hosti u' = None && port u <> None  [inside F-C02-4]
     set_host(None):      has_host u && path_starts_with_2slash u                           [F-C02-2]
     set_path p:          is_opaque u && p contains '?' or '#'                              [inside F-C02-3]
     set_path, quirks set_pathname, path_segments_mut on an authority-less, non-opaque record:
        path_starts_with_2slash u' <> (the marker is there)   [F-C02-8 / F-C03-5; exact: C06_frame_path_marker,
        C06_frame_path_noauth_exact show the result is then never wf_b]
     set_path, quirks set_pathname:  auth_end_b u = false - the text in front of the path of a special non-file
        URL ends in '/' (an invariant of parsed records that wf_b does not carry: C06_auth_end_parse; no
        reachable record is known to be in this class).
   NOT excluded: F-C06-5 (set_host(None) on "a://h": the frame fails, the invariant holds), the credentials half
   of F-C02-4, file URLs, trailing spaces (F-C02-3), F-C02-9.
   IpDisp hd: the display of the IpAddr values set_ip_host can be given is non-empty and does not start with
   ':' or '@' (HostWf speaks only about hosts the two host parsers return). *)
Theorem C03_step : forall dbg hp hpo hd u o u', HostWf hp hpo hd -> IpDisp hd ->
  wf_b u = true /\ host_text_ok u -> op_args_ok o -> excl03 u o u' = false ->
  apply_op dbg hp hpo hd u o = Some u' -> wf_b u' = true /\ host_text_ok u'.
Proof. intros dbg hp hpo hd u o u' HW HIP K Ha G H. exact (step03 dbg hp hpo hd HW u o u' HIP K Ha G H). Qed.
Check C03_step : forall dbg hp hpo hd u o u', HostWf hp hpo hd -> IpDisp hd ->
  wf_b u = true /\ host_text_ok u -> op_args_ok o -> excl03 u o u' = false ->
  apply_op dbg hp hpo hd u o = Some u' -> wf_b u' = true /\ host_text_ok u'.
Print Assumptions C03_step.

(* every class of excl03 is needed in C03_step: for each, a record satisfying wf_b /\ host_text_ok, a call in the
   class and a result that is NOT wf_b (host functions: every text is a domain).  The receivers of the first nine
   are reachable (they are the known findings); the receiver of the last one, "http:///p" with an empty host, is
   not known to be reachable - it shows that C03_step itself needs the auth_end_b exclusion. *)
Theorem C03_excl03_exact :
  excl_witness w_marker (OSetHost (Some (B "h"))) = true
  /\ excl_witness w_marker (OSetIpHost (HIpv4 1)) = true
  /\ excl_witness w_port (OSetHost (Some [])) = true
  /\ excl_witness w_2slash (OSetHost None) = true
  /\ excl_witness w_opaque (OSetPath (B "?")) = true
  /\ excl_witness w_noauth (OSetPath (B "//x")) = true
  /\ excl_witness w_noauth (OQPathname (B "//x")) = true
  /\ excl_witness w_marker (OSetPath (B "/q")) = true
  /\ excl_witness w_marker (OPathSegments [PClear]) = true
  /\ excl_witness w_auth_end (OSetPath (B "x")) = true.
Proof. exact excl03_witnesses. Qed.
Print Assumptions C03_excl03_exact.

(* reach03a dbg hp hpo hd (Proofs/C03_Reachability.v): parse_url without a base; parse_url against a reached
   base that satisfies base_ok (C04: a special base is not cannot-be-a-base - true of every parse result, and an
   invariant of the histories of reach03j: C03_reachability_joins, R4); Url::from_file_path / from_directory_path of a byte string; and any sequence of
   calls of the 19 mutators with known03 u o u' = negb (url_eqb u' u) && excl03 u o u' = false, i.e. the call
   left the record as it was (every failing call does: C06_atomic) or is outside excl03. *)
Definition C03_reachability_statement2 : Prop :=
  forall dbg hp hpo hd, HostWf hp hpo hd -> IpDisp hd ->
  forall u, reach03a dbg hp hpo hd u -> wf_b u = true /\ host_text_ok u.

Theorem C03_reachability : C03_reachability_statement2.
Proof. exact reach03a_wfh. Qed.
Check C03_reachability : forall dbg hp hpo hd, HostWf hp hpo hd -> IpDisp hd ->
  forall u, reach03a dbg hp hpo hd u -> wf_b u = true /\ host_text_ok u.
Print Assumptions C03_reachability.

(* the records of the two file-path constructors (C20 says which records they are) *)
Theorem C03_file_constructors : forall p u, bytes p ->
  from_file_path p = FOk u \/ from_directory_path p = FOk u -> (wf_b u = true /\ host_text_ok u) /\ base_ok u = true.
Proof.
  intros p u Hb [H|H].
  - split; [exact (from_file_path_wfh p u Hb H) | exact (from_file_path_base_ok p u Hb H)].
  - split; [exact (from_directory_path_wfh p u Hb H) | exact (from_directory_path_base_ok p u Hb H)].
Qed.
Print Assumptions C03_file_constructors.

(* the serialization of every such record consists of bytes 0x20..0x7E (C05's alphabet invariant; HostOK / IpOK
   of C05: the host display functions stay inside 0x21..0x7E), so it is ASCII: no slice splits a character *)
Theorem C03_reach_ascii : forall dbg hp hpo hd u, C05_Parser.HostOK hp hpo hd -> C05_Setters.IpOK hd ->
  reach03a dbg hp hpo hd u -> Forall ok_or_space (ser u) /\ ascii (ser u).
Proof.
  intros dbg hp hpo hd u HOK HIP R.
  split; [exact (reach03a_alphabet dbg hp hpo hd HOK HIP u R) | exact (reach03a_ascii dbg hp hpo hd HOK HIP u R)].
Qed.
Check C03_reach_ascii : forall dbg hp hpo hd u, C05_Parser.HostOK hp hpo hd -> C05_Setters.IpOK hd ->
  reach03a dbg hp hpo hd u -> Forall ok_or_space (ser u) /\ ascii (ser u).
Print Assumptions C03_reach_ascii.

(* the same under IpOKv of C05 (address VALUES - Ipv4Addr / Ipv6Addr, what set_ip_host can be given - are displayed
   inside 0x21..0x7E) in place of IpOK (every host value that is not a domain): the weaker hypothesis, the one the host
   model meets *)
Theorem C03_reach_ascii_v : forall dbg hp hpo hd u, C05_Parser.HostOK hp hpo hd -> C05_Alphabet.IpOKv hd ->
  reach03a dbg hp hpo hd u -> Forall ok_or_space (ser u) /\ ascii (ser u).
Proof.
  intros dbg hp hpo hd u HOK HIP R.
  split; [exact (reach03a_alphabet_v dbg hp hpo hd HOK HIP u R) | exact (reach03a_ascii_v dbg hp hpo hd HOK HIP u R)].
Qed.
Check C03_reach_ascii_v : forall dbg hp hpo hd u, C05_Parser.HostOK hp hpo hd -> C05_Alphabet.IpOKv hd ->
  reach03a dbg hp hpo hd u -> Forall ok_or_space (ser u) /\ ascii (ser u).
Print Assumptions C03_reach_ascii_v.

Example C03_reach_ascii_v_inhabited : C05_Parser.HostOK ex_hp3 ex_hp ex_hd2 /\ C05_Alphabet.IpOKv ex_hd2.
Proof. destruct ex3_full_hyps as (_ & _ & _ & A & B0). split; assumption. Qed.

(* with the host MODEL (Model/Host.v) in place of the abstract host functions: the only premise is IdnaOK idna (C09) *)
Theorem C03_reach_ascii_model : forall dbg idna u, C09_Host.IdnaOK idna ->
  reach03a dbg (Host.host_parse idna) Host.host_parse_opaque Host.host_display u -> Forall ok_or_space (ser u) /\ ascii (ser u).
Proof. intros dbg idna u OK R. exact (reach03a_ascii_model dbg idna OK u R). Qed.
Check C03_reach_ascii_model : forall dbg idna u, C09_Host.IdnaOK idna ->
  reach03a dbg (Host.host_parse idna) Host.host_parse_opaque Host.host_display u -> Forall ok_or_space (ser u) /\ ascii (ser u).
Print Assumptions C03_reach_ascii_model.

(* the first two sentences of the property text for every reached record, in both build configurations
   (dbg' of the accessors is independent of the dbg the history was run with): the accessors re-concatenate to
   the serialization; every Position index is in bounds, indices are monotone in Position order, all range forms
   succeed and consecutive ranges re-concatenate *)
Theorem C03_accessors_reach : forall dbg dbg' hp hpo hd u, HostWf hp hpo hd -> IpDisp hd -> reach03a dbg hp hpo hd u ->
  (exists sch un pw hs pth q f,
    scheme u = Some sch /\ username dbg' u = Some un /\ password dbg' u = Some pw /\ host_str u = Some hs
    /\ path u = Some pth /\ query dbg' u = Some q /\ fragment dbg' u = Some f
    /\ ser u =
       sch ++ (if has_authority_b u then s_css else [58])
       ++ un ++ (match pw with Some p => 58 :: p | None => [] end)
       ++ (if has_authority_b u && negb (username_end u =? host_start u) then [64] else [])
       ++ piece u (host_start u) (host_end u)
       ++ (match port u with Some p => 58 :: decimal p | None => [] end)
       ++ (if negb (has_authority_b u) && (path_start u =? scheme_end u + 3) then [47; 46] else [])
       ++ pth
       ++ (match q with Some x => 63 :: x | None => [] end)
       ++ (match f with Some x => 35 :: x | None => [] end))
  /\ (forall p, exists i, position_index dbg' u p = Some i /\ i <= nlen (ser u))
  /\ (forall p q i j, (pos_rank p <= pos_rank q)%nat ->
        position_index dbg' u p = Some i -> position_index dbg' u q = Some j -> i <= j)
  /\ (forall p q, (pos_rank p <= pos_rank q)%nat -> exists s, index_range dbg' u p q = Some s)
  /\ (forall p, exists s t, index_to dbg' u p = Some s /\ index_from dbg' u p = Some t /\ s ++ t = ser u)
  /\ index_range dbg' u BeforeScheme AfterFragment = Some (ser u).
Proof.
  intros dbg dbg' hp hpo hd u HW HIP R. destruct (reach03a_wfh dbg hp hpo hd HW HIP u R) as [W _].
  split; [|split; [|split; [|split; [|split]]]].
  - destruct (C03_concat dbg' u W) as (sch & un & pw & hs & pth & q & f & A1 & A2 & A3 & A4 & A5 & A6 & A7 & A8 & _).
    exists sch, un, pw, hs, pth, q, f. repeat split; assumption.
  - intros p. exact (C03_index dbg' u p W).
  - intros p q i j. exact (C03_monotone dbg' u p q i j W).
  - exact (proj1 (C03_slices dbg' u W)).
  - exact (proj1 (proj2 (C03_slices dbg' u W))).
  - exact (proj2 (proj2 (proj2 (C03_slices dbg' u W)))).
Qed.
Print Assumptions C03_accessors_reach.

(* R3. histories whose exclusions are only the known findings *)
(* auth_end_ok, the member of excl03 that is not a known finding, follows from an invariant of histories, HE u
   (Proofs/C03_AuthEnd.v): with a special scheme a host text does not end in '/', and a special scheme other than
   file has a host.  HE is preserved by every call of the 19 mutators outside excl03 - NoEmpty hp: Host::parse never
   returns the empty host (it fails with EmptyHost); IpWf hd: the display of an IpAddr is a host text (non-empty,
   not starting with ':' / '@', not ending in '/') *)
Theorem C03_auth_end_step : forall dbg hp hpo hd u o u', HostWf hp hpo hd -> NoEmpty hp -> IpWf hd ->
  wf_b u = true /\ host_text_ok u -> op_args_ok o -> excl03 u o u' = false ->
  apply_op dbg hp hpo hd u o = Some u' -> HE u -> HE u' /\ auth_end_ok u.
Proof.
  intros dbg hp hpo hd u o u' HW HNE HIP K Ha G H K0.
  split; [exact (he_step dbg hp hpo hd HW HNE HIP u o u' K Ha G H K0) | exact (he_auth_end u K K0)].
Qed.
Check C03_auth_end_step : forall dbg hp hpo hd u o u', HostWf hp hpo hd -> NoEmpty hp -> IpWf hd ->
  wf_b u = true /\ host_text_ok u -> op_args_ok o -> excl03 u o u' = false ->
  apply_op dbg hp hpo hd u o = Some u' -> HE u -> HE u' /\ auth_end_ok u.
Print Assumptions C03_auth_end_step.

(* reach03k dbg hp hpo hd (Proofs/C03_ReachKnown.v): Url::parse (no base) of a text (&str) with a scheme other than
   "file" - C02's four closed-form classes - or Url::from_file_path / from_directory_path of a byte string,
   followed by ANY sequence of calls of the 19 mutators (successful or failing) with
   known03k u o u' = negb (url_eqb u' u) && excl03k u o u' = false, where excl03k is excl03 WITHOUT the auth_end_b
   member: the exclusions are exactly the known classes F-C03-5, F-C02-2, F-C02-8, the '?' / '#' half of F-C02-3
   and the empty-host-with-port half of F-C02-4 (all witnessed: C03_excl03_exact).  Every such record satisfies
   wf_b /\ host_text_ok, auth_end_ok, and never stores the default port of its scheme.  Hypotheses on the host
   functions: HostRT and host_above of C02, NoEmpty, IpWf (all met by the example instance).
   Joins and file: texts are not in reach03k; reach03j (R4, C03_reachability_joins) has them. *)
Theorem C03_reachability_known : forall dbg hp hpo hd,
  HostRT hp hpo hd -> host_above hp hpo hd -> NoEmpty hp -> IpWf hd ->
  forall u, reach03k dbg hp hpo hd u ->
  (wf_b u = true /\ host_text_ok u) /\ auth_end_ok u /\ PN u /\ reach03a dbg hp hpo hd u.
Proof.
  intros dbg hp hpo hd HRT HAb HNE HIP u R.
  destruct (reach03k_inv dbg hp hpo hd HRT HAb HNE HIP u R) as (K & He & Pn & Rn).
  split; [exact K|]. split; [exact (he_auth_end u K He)|]. split; [exact Pn | exact (reach03n_sub dbg hp hpo hd u Rn)].
Qed.
Check C03_reachability_known : forall dbg hp hpo hd,
  HostRT hp hpo hd -> host_above hp hpo hd -> NoEmpty hp -> IpWf hd ->
  forall u, reach03k dbg hp hpo hd u ->
  (wf_b u = true /\ host_text_ok u) /\ auth_end_ok u /\ PN u /\ reach03a dbg hp hpo hd u.
Print Assumptions C03_reachability_known.

(* the hypotheses are met (Host::parse fails on the empty text, Host::parse_opaque returns the empty host), and a
   history through the special-scheme path setter: parse "http://h:81/p?q", set_path "x/../y", quirks set_host
   "g:443", set_scheme "https" -> "https://g/y?q" (443 became the default and is dropped) *)
Example C03_reachability_known_inhabited :
  ((HostRT ex_hp3 ex_hp ex_hd2 /\ host_above ex_hp3 ex_hp ex_hd2) /\ NoEmpty ex_hp3 /\ IpWf ex_hd2)
  /\ reach03k_example_stmt.
Proof. split; [exact ex3_hyps | exact reach03k_example]. Qed.

(* R4. joins and file: texts; the parser's invariants beyond wf_b *)
(* inv03 u (Proofs/C03_ParseFront.v) = (wf_b u /\ host_text_ok u) /\ AS u /\ PN u /\ HE u:
     AS (C05_AuthOfs): a special scheme is followed by "://" - hence base_ok: the record is a possible base;
     PN: the stored port is not the default port of the stored scheme;
     HE: with a special scheme the host text does not end in '/', a special scheme other than file has a host -
         hence auth_end_ok.
   EVERY record Parser::parse_url returns satisfies inv03 - any input, any encoding override, both builds, the file
   scheme included - from a base that satisfies inv03 (no premise without a base).  Hypothesis: HostWf only. *)
Theorem C03_parse_invariants : forall dbg hp hpo hd ovr base input u, HostWf hp hpo hd ->
  match base with Some b => inv03 b | None => True end ->
  parse_url dbg hp hpo hd ovr base input = POk u -> inv03 u.
Proof. exact parse_url_inv03. Qed.
Check C03_parse_invariants : forall dbg hp hpo hd ovr base input u, HostWf hp hpo hd ->
  match base with Some b => (wf_b b = true /\ host_text_ok b) /\ AS b /\ PN b /\ HE b | None => True end ->
  parse_url dbg hp hpo hd ovr base input = POk u -> (wf_b u = true /\ host_text_ok u) /\ AS u /\ PN u /\ HE u.
Print Assumptions C03_parse_invariants.

(* one call of any of the 19 mutators outside the KNOWN classes only (known03k: the call changed the record and
   lies in excl03k = excl03 without the auth_end_b member) keeps inv03 *)
Theorem C03_invariants_step : forall dbg hp hpo hd u o u', HostWf hp hpo hd -> NoEmpty hp -> IpWf hd ->
  inv03 u -> op_args_ok o -> known03k u o u' = false -> apply_op dbg hp hpo hd u o = Some u' -> inv03 u'.
Proof. intros dbg hp hpo hd u o u' HW HNE HIP. exact (inv03_step dbg hp hpo hd HW HNE HIP u o u'). Qed.
Check C03_invariants_step : forall dbg hp hpo hd u o u', HostWf hp hpo hd -> NoEmpty hp -> IpWf hd ->
  inv03 u -> op_args_ok o -> known03k u o u' = false -> apply_op dbg hp hpo hd u o = Some u' -> inv03 u'.
Print Assumptions C03_invariants_step.

(* reach03j dbg hp hpo hd (Proofs/C03_ReachJoin.v): Parser::parse_url without a base (ANY text, file: included),
   against ANY reached record (no base_ok premise), Url::from_file_path / from_directory_path, and any sequence of
   calls of the 19 mutators with known03k = false.  It contains reach03k and is contained in reach03a: the two
   premises of reach03a that are not known findings - base_ok of a base, auth_end_b of a receiver - are invariants. *)
Theorem C03_reachability_joins : forall dbg hp hpo hd, HostWf hp hpo hd -> NoEmpty hp -> IpWf hd ->
  forall u, reach03j dbg hp hpo hd u ->
  (wf_b u = true /\ host_text_ok u) /\ base_ok u = true /\ auth_end_ok u /\ PN u /\ reach03a dbg hp hpo hd u.
Proof.
  intros dbg hp hpo hd HW HNE HIP u R. destruct (reach03j_inv dbg hp hpo hd HW HNE HIP u R) as (K & A & P & E).
  split; [exact K|]. split; [exact (as_base_ok u (proj1 K) A)|]. split; [exact (he_auth_end u K E)|].
  split; [exact P | exact (reach03j_a dbg hp hpo hd HW HNE HIP u R)].
Qed.
Check C03_reachability_joins : forall dbg hp hpo hd, HostWf hp hpo hd -> NoEmpty hp -> IpWf hd ->
  forall u, reach03j dbg hp hpo hd u ->
  (wf_b u = true /\ host_text_ok u) /\ base_ok u = true /\ auth_end_ok u /\ PN u /\ reach03a dbg hp hpo hd u.
Print Assumptions C03_reachability_joins.

(* non-vacuity: parse "file://h/a/b", join "../c?q", set_path "x/../y", join "http://g:80/z" (80 is dropped),
   join "//k:81" -> "http://k:81/" *)
Example C03_reachability_joins_inhabited :
  (HostWf ex_hp3 ex_hp ex_hd2 /\ NoEmpty ex_hp3 /\ IpWf ex_hd2) /\ reach03j_example_stmt.
Proof.
  destruct ex3_hyps as ((HRT & _) & HNE & HIP).
  split; [split; [exact (HostRT_HostWf _ _ _ HRT) | split; assumption] | exact reach03j_example].
Qed.

(* R5. C02's quantifier *)
(* Reachable3 dbg hp hpo hd (Proofs/C02_Reach3.v): parse and join of &str texts (against ANY reached record), every
   call of the 19 mutators outside C02's known_step2 (= F-C03-5, F-C02-3, F-C02-2, F-C02-8, F-C02-4, F-C02-9),
   Url::query_pairs_mut sessions; results in the drive-letter class are not continued.
   known_step2 and excl03k differ in ONE class: a path_segments_mut session on an authority-less record without the
   "/." marker whose result starts with "//" (in excl03k, not in known_step2).  SessNoSS dbg (Proofs/C03_ReachFull.v)
   says there is no such session on a record of a non-special scheme; it is a hypothesis of the two partial theorems
   and is proved in Proofs/C03_SessNoSS.v (C03_sessions_no_2slash), which gives C03_reachability_full.  The host half
   of excl03k (an empty host in front of a stored port) is refused by quirks::set_host / set_hostname themselves and
   cannot come out of Url::set_host with a non-empty argument or set_ip_host (host_nonempty of C02: Host::parse never
   returns the empty host, Host::parse_opaque only for the empty text); is_cbb = is_opaque_b; F-C02-8 = path_bad
   without marker; query_pairs_mut keeps inv03.  HostOK / IpOKv of C05 (the displays of parsed hosts and of address values stay in 0x21..0x7E): the
   session theorem of C15 is about ASCII serializations. *)
Definition C03_reachability_full_statement2 : Prop :=
  forall dbg hp hpo hd, HostWf hp hpo hd -> host_nonempty hp hpo -> IpWf hd ->
  C05_Parser.HostOK hp hpo hd -> C05_Alphabet.IpOKv hd ->
  forall u, Reachable3 dbg hp hpo hd u ->
  (wf_b u = true /\ host_text_ok u) /\ base_ok u = true /\ auth_end_ok u /\ PN u.

Theorem C03_known_classes : forall dbg hp hpo hd u o u', HostWf hp hpo hd -> host_nonempty hp hpo -> SessNoSS dbg ->
  inv03 u -> op_args_ok o -> known_step2 dbg hp hpo hd u o = false ->
  apply_op dbg hp hpo hd u o = Some u' -> known03k u o u' = false.
Proof. intros dbg hp hpo hd u o u' HW HNE HSS. exact (known_k dbg hp hpo hd HW HNE HSS u o u'). Qed.
Check C03_known_classes : forall dbg hp hpo hd u o u', HostWf hp hpo hd -> host_nonempty hp hpo -> SessNoSS dbg ->
  inv03 u -> op_args_ok o -> known_step2 dbg hp hpo hd u o = false ->
  apply_op dbg hp hpo hd u o = Some u' -> known03k u o u' = false.
Print Assumptions C03_known_classes.

Theorem C03_query_pairs_step : forall dbg u ops u', inv03 u -> Forall ok_or_space (ser u) -> Forall C15_Ser.op_ok ops ->
  QueryPairs.query_pairs_session dbg u ops = Some u' -> inv03 u' /\ Forall ok_or_space (ser u').
Proof. exact qpm_inv03. Qed.
Print Assumptions C03_query_pairs_step.

Theorem C03_reachability_full_partial : forall dbg hp hpo hd, HostWf hp hpo hd -> host_nonempty hp hpo -> IpWf hd ->
  C05_Parser.HostOK hp hpo hd -> C05_Alphabet.IpOKv hd -> SessNoSS dbg ->
  forall u, Reachable3 dbg hp hpo hd u ->
  (wf_b u = true /\ host_text_ok u) /\ base_ok u = true /\ auth_end_ok u /\ PN u.
Proof.
  intros dbg hp hpo hd HW HNE HIPW HOK HIP HSS u R.
  destruct (reach3_inv dbg hp hpo hd HW HNE HIPW HOK HIP HSS u R) as [(K & A & P & E) _].
  split; [exact K|]. split; [exact (as_base_ok u (proj1 K) A)|]. split; [exact (he_auth_end u K E) | exact P].
Qed.
Check C03_reachability_full_partial : forall dbg hp hpo hd, HostWf hp hpo hd -> host_nonempty hp hpo -> IpWf hd ->
  C05_Parser.HostOK hp hpo hd -> C05_Alphabet.IpOKv hd -> SessNoSS dbg ->
  forall u, Reachable3 dbg hp hpo hd u ->
  (wf_b u = true /\ host_text_ok u) /\ base_ok u = true /\ auth_end_ok u /\ PN u.
Print Assumptions C03_reachability_full_partial.

(* a path_segments_mut session (any sequence of clear / pop / pop_if_empty / push / extend with &str arguments) on an
   authority-less record of a non-special scheme whose path starts with '/' and that carries no "/." marker never
   yields a path that starts with "//": '/' is appended only behind a path longer than "/", a '/' inside a segment is
   written %2F, and the dot-segment handling only truncates or appends '/' behind a text not ending in '/' *)
Theorem C03_sessions_no_2slash : forall dbg, SessNoSS dbg.
Proof. exact sess_no_ss. Qed.
Check C03_sessions_no_2slash : forall dbg u ops u', wf_b u = true -> C06_PathNoAuth.noauth_slash_path u ->
  st_is_special (scheme_type_of (b_scheme u)) = false -> Forall C06_Segments.psm_op_usv ops ->
  path_segments_session dbg u ops = Some (u', SOk) -> C06_HostNone.path_starts_with_2slash u' = false.
Print Assumptions C03_sessions_no_2slash.

(* EVERY record of C02's quantifier Reachable3: C03_reachability_full_partial without the hypothesis SessNoSS *)
Theorem C03_reachability_full : C03_reachability_full_statement2.
Proof.
  intros dbg hp hpo hd HW HNE HIPW HOK HIP u R.
  destruct (reach3_inv_all dbg hp hpo hd HW HNE HIPW HOK HIP u R) as [(K & A & P & E) _].
  split; [exact K|]. split; [exact (as_base_ok u (proj1 K) A)|]. split; [exact (he_auth_end u K E) | exact P].
Qed.
Check C03_reachability_full : forall dbg hp hpo hd, HostWf hp hpo hd -> host_nonempty hp hpo -> IpWf hd ->
  C05_Parser.HostOK hp hpo hd -> C05_Alphabet.IpOKv hd ->
  forall u, Reachable3 dbg hp hpo hd u ->
  (wf_b u = true /\ host_text_ok u) /\ base_ok u = true /\ auth_end_ok u /\ PN u.
Print Assumptions C03_reachability_full.

(* the same with the host MODEL (Model/Host.v; property C09) in place of the abstract host functions: the five
   hypotheses are met under the only premise IdnaOK idna (what the idna crate's ToASCII must satisfy, C09) *)
Theorem C03_reachability_full_model : forall dbg idna, C09_Host.IdnaOK idna ->
  forall u, Reachable3 dbg (Host.host_parse idna) Host.host_parse_opaque Host.host_display u ->
  (wf_b u = true /\ host_text_ok u) /\ base_ok u = true /\ auth_end_ok u /\ PN u.
Proof.
  intros dbg idna OK u R. destruct (reach3_model dbg idna OK u R) as (K & A & P & E).
  split; [exact K|]. split; [exact (as_base_ok u (proj1 K) A)|]. split; [exact (he_auth_end u K E) | exact P].
Qed.
Check C03_reachability_full_model : forall dbg idna, C09_Host.IdnaOK idna ->
  forall u, Reachable3 dbg (Host.host_parse idna) Host.host_parse_opaque Host.host_display u ->
  (wf_b u = true /\ host_text_ok u) /\ base_ok u = true /\ auth_end_ok u /\ PN u.
Print Assumptions C03_reachability_full_model.

(* hence the first two sentences of the property text for every record of Reachable3, in both build configurations *)
Theorem C03_accessors_reachable : forall dbg dbg' hp hpo hd u, HostWf hp hpo hd -> host_nonempty hp hpo -> IpWf hd ->
  C05_Parser.HostOK hp hpo hd -> C05_Alphabet.IpOKv hd -> Reachable3 dbg hp hpo hd u ->
  (exists sch un pw hs pth q f,
    scheme u = Some sch /\ username dbg' u = Some un /\ password dbg' u = Some pw /\ host_str u = Some hs
    /\ path u = Some pth /\ query dbg' u = Some q /\ fragment dbg' u = Some f
    /\ ser u =
       sch ++ (if has_authority_b u then s_css else [58])
       ++ un ++ (match pw with Some p => 58 :: p | None => [] end)
       ++ (if has_authority_b u && negb (username_end u =? host_start u) then [64] else [])
       ++ piece u (host_start u) (host_end u)
       ++ (match port u with Some p => 58 :: decimal p | None => [] end)
       ++ (if negb (has_authority_b u) && (path_start u =? scheme_end u + 3) then [47; 46] else [])
       ++ pth
       ++ (match q with Some x => 63 :: x | None => [] end)
       ++ (match f with Some x => 35 :: x | None => [] end))
  /\ (forall p, exists i, position_index dbg' u p = Some i /\ i <= nlen (ser u))
  /\ (forall p q i j, (pos_rank p <= pos_rank q)%nat ->
        position_index dbg' u p = Some i -> position_index dbg' u q = Some j -> i <= j)
  /\ (forall p q, (pos_rank p <= pos_rank q)%nat -> exists s, index_range dbg' u p q = Some s)
  /\ (forall p, exists s t, index_to dbg' u p = Some s /\ index_from dbg' u p = Some t /\ s ++ t = ser u)
  /\ index_range dbg' u BeforeScheme AfterFragment = Some (ser u).
Proof.
  intros dbg dbg' hp hpo hd u HW HNE HIPW HOK HIP R.
  destruct (C03_reachability_full dbg hp hpo hd HW HNE HIPW HOK HIP u R) as [[W _] _].
  split; [|split; [|split; [|split; [|split]]]].
  - destruct (C03_concat dbg' u W) as (sch & un & pw & hs & pth & q & f & A1 & A2 & A3 & A4 & A5 & A6 & A7 & A8 & _).
    exists sch, un, pw, hs, pth, q, f. repeat split; assumption.
  - intros p. exact (C03_index dbg' u p W).
  - intros p q i j. exact (C03_monotone dbg' u p q i j W).
  - exact (proj1 (C03_slices dbg' u W)).
  - exact (proj1 (proj2 (C03_slices dbg' u W))).
  - exact (proj2 (proj2 (proj2 (C03_slices dbg' u W)))).
Qed.
Print Assumptions C03_accessors_reachable.

(* non-vacuity: host functions meeting the five hypotheses, and a history of Reachable3: parse "a:/p?x=1",
   query_pairs_mut().append_pair("k", "v w"), path_segments_mut pop / push "" / push "b/c" (-> a:/b%2Fc?...),
   set_path "/d", join "e" -> "a:/e" *)
Example C03_reachability_full_inhabited :
  (HostWf ex_hp3 ex_hp ex_hd2 /\ host_nonempty ex_hp3 ex_hp /\ IpWf ex_hd2
   /\ C05_Parser.HostOK ex_hp3 ex_hp ex_hd2 /\ C05_Alphabet.IpOKv ex_hd2)
  /\ reach3_example_stmt.
Proof. split; [exact ex3_full_hyps | exact reach3_example]. Qed.

(* what separates C03_reachability (over reach03a) from "every reachable Url" in the sense of C02, i.e. the
   formulation below over C02_Reach.Reachable with HostWf alone:
   (1) base_ok of a reached base is a premise of reach03a's join          - it is an invariant (AS, R4);
   (2) auth_end_b u is part of excl03 for set_path / quirks set_pathname   - it is an invariant (HE, R4);
   (3) the host half of excl03 is stated on the result, Known_F_C02_4 on the argument - related in R5 under
       host_nonempty (without it the statement below is false for abstract host functions:
       C03_reachability_full_statement_refuted);
   (4) for path_segments_mut sessions on an authority-less record excl03 has path_bad, known_step only the marker:
       no such session reaches the difference (C03_sessions_no_2slash).
   The statement with the hypothesis host_nonempty is C03_reachability_full_statement2, proved:
   C03_reachability_full (R5). *)
Definition C03_reachability_full_statement : Prop :=
  forall dbg hp hpo hd, HostWf hp hpo hd -> forall u, Reachable dbg hp hpo hd u -> wf_b u = true.

(* it is FALSE as stated: HostWf does not exclude a Host::parse that returns the empty host for a non-empty text; with
   such a function set_host(Some "x") on "http://h:81/" (outside known_step: the argument is not empty) gives
   "http://:81/".  Not a defect of the crate - url::Host::parse fails with EmptyHost instead (host_nonempty, true of
   the host model: C02_host_nonempty_model); the statement lacks the hypothesis, which C03_reachability_full has *)
Theorem C03_reachability_full_statement_refuted : ~ C03_reachability_full_statement.
Proof.
  intros H. destruct full_statement_witness as (u & R & Hw).
  rewrite (H true bad_hp2 ex_hp ex_hd bad_hp2_wf u R) in Hw. discriminate.
Qed.
Print Assumptions C03_reachability_full_statement_refuted.

(* non-vacuity: the host hypothesis has an instance; with it, joins of every kind of relative reference are
   outside the file class, meet the premises on the base, and give the expected well-formed records *)
Example C03_HostWf_inhabited : HostWf ex_hp ex_hp ex_hd.
Proof. exact ex_host_wf. Qed.

Example C03_parse_wf_inhabited :
  ex_join "http://u@h.x:81/a/b?q#f" "../c?r" "http://u@h.x:81/c?r" = true
  /\ ex_join "http://u@h.x:81/a/b?q#f" "//o.x/" "http://o.x/" = true
  /\ ex_join "http://u@h.x:81/a/b?q#f" "#g" "http://u@h.x:81/a/b?q#g" = true
  /\ ex_join "http://u@h.x:81/a/b?q#f" "?y" "http://u@h.x:81/a/b?y" = true
  /\ ex_join "http://u@h.x:81/a/b?q#f" "http:rel" "http://u@h.x:81/a/rel" = true
  /\ ex_join "a://h/p/q?x" "/z" "a://h/z" = true
  /\ ex_join "a://h/p/q?x" "" "a://h/p/q?x" = true
  /\ ex_join "a:/p/q" "..//r" "a:/.//r" = true.
Proof. exact join_examples. Qed.

Example C03_parse_file_inhabited :
  ex_file "file://h/C|/x" "file:///C:/x" = true /\ ex_file "file:///C|" "file:///C|" = true
  /\ ex_file "file:\\h\p?q#f" "file://h/p?q#f" = true /\ ex_file "file:x" "file:///x" = true.
Proof. destruct file_examples as (A & B & C & D & _). repeat split; assumption. Qed.

(* non-vacuity: a concrete record (http://u:p@h:81/a?q#f) satisfies wf_b *)
Example C03_wf_inhabited :
  wf_b (mkUrl [104;116;116;112;58;47;47;117;58;112;64;104;58;56;49;47;97;63;113;35;102]
              4 8 11 12 HI_Domain (Some 81) 15 (Some 17) (Some 19)) = true
  /\ wf_b (mkUrl [97;58;47;46;47;47;120] 1 2 2 2 HI_None None 4 None None) = true.
Proof. vm_compute. split; reflexivity. Qed.

(* non-vacuity of R2: host functions meeting HostWf and IpDisp (texts over a host alphabet are domains; IP values
   are printed), and two histories: parse "a://h:80/p?q#f", set_host(Some "y"), quirks set_host "x:81",
   path_segments_mut push "z", set_ip_host(1.2.3.4), set_host(None) twice -> "a:/p/z?q#f";
   from_file_path "/a b/c", set_host(Some "h"), quirks set_pathname "d" -> "file://h/d" *)
Example C03_reachability_inhabited :
  HostWf ex_hp ex_hp ex_hd2 /\ IpDisp ex_hd2 /\ reach03a_example_stmt.
Proof. split; [exact ex2_host_wf|]. split; [exact ex2_ip_disp | exact reach03a_example]. Qed.

(* V. the other overlapping views (Proofs/C03_Views.v) *)
(* authority(): the slice between the Positions BeforeUsername and AfterPort, "" without an authority *)
Theorem C03_authority : forall dbg u, wf_b u = true ->
  authority dbg u = Some (if has_authority_b u then piece u (scheme_end u + 3) (path_start u) else [])
  /\ (has_authority_b u = true -> index_range dbg u BeforeUsername AfterPort = authority dbg u).
Proof. exact authority_view. Qed.
Check C03_authority : forall dbg u, wf_b u = true ->
  authority dbg u = Some (if has_authority_b u then piece u (scheme_end u + 3) (path_start u) else [])
  /\ (has_authority_b u = true -> index_range dbg u BeforeUsername AfterPort = authority dbg u).
Print Assumptions C03_authority.

(* cannot_be_a_base() vs path_segments(): path_segments() is None for every cannot-be-a-base record, and for a
   record that is not cannot-be-a-base exactly when its path is empty, which needs an authority - the class of
   F-C03-4 ("a://h"), inhabited *)
Theorem C03_cbb_vs_segments : forall u, wf_b u = true ->
  exists c sg p, cannot_be_a_base u = Some c /\ path_segments u = Some sg /\ path u = Some p
    /\ (c = true -> sg = None)
    /\ (c = false -> (sg = None <-> p = []))
    /\ (c = false -> p = [] -> has_authority_b u = true).
Proof. exact cbb_vs_segments. Qed.
Check C03_cbb_vs_segments : forall u, wf_b u = true ->
  exists c sg p, cannot_be_a_base u = Some c /\ path_segments u = Some sg /\ path u = Some p
    /\ (c = true -> sg = None)
    /\ (c = false -> (sg = None <-> p = []))
    /\ (c = false -> p = [] -> has_authority_b u = true).
Print Assumptions C03_cbb_vs_segments.

Example C03_F_C03_4_witness :
  let u := mkUrl [97; 58; 47; 47; 104] 1 4 4 5 HI_Domain None 5 None None in
  wf_b u = true /\ cannot_be_a_base u = Some false /\ path_segments u = Some None /\ path u = Some [].
Proof. exact cbb_vs_segments_F_C03_4. Qed.

(* port_or_known_default() and socket_addrs() (the latter is a transcription of lib.rs:1332-1358 in
   Proofs/C03_Views.v, not part of the extracted model): without a host "No host name"; with an IP host exactly
   one address, whose port is the stored port, else the scheme default, else the caller's fallback, and
   "No port number" when all three are absent; a domain goes to the resolver with that port *)
Theorem C03_port_or_known_default : forall u, wf_b u = true ->
  exists sch, scheme u = Some sch
    /\ port_or_known_default u = Some (match port u with Some p => Some p | None => default_port sch end).
Proof. exact port_or_known_default_view. Qed.
Print Assumptions C03_port_or_known_default.

Theorem C03_socket_addrs : forall u fallback, wf_b u = true ->
  exists sch, scheme u = Some sch
    /\ (has_host u = false -> socket_addrs u fallback = Some SockNoHost)
    /\ (forall a, hosti u = HI_Ipv4 a ->
          socket_addrs u fallback = Some (match effective_port u sch fallback with
                                          | Some p => SockAddrs [(HIpv4 a, p)] | None => SockNoPort end))
    /\ (forall ps, hosti u = HI_Ipv6 ps ->
          socket_addrs u fallback = Some (match effective_port u sch fallback with
                                          | Some p => SockAddrs [(HIpv6 ps, p)] | None => SockNoPort end))
    /\ (hosti u = HI_Domain -> exists d, host_str u = Some (Some d)
          /\ socket_addrs u fallback = Some (match effective_port u sch fallback with
                                             | Some p => SockResolve d p | None => SockNoPort end)).
Proof. exact socket_addrs_view. Qed.
Print Assumptions C03_socket_addrs.

(* port() vs port_or_known_default(): "a scheme-default port is never stored".  PN u (Proofs/C03_PortInv.v): the
   stored port is not the default port of the stored scheme.  wf_b does not imply it (a record "http://h:80/"
   with port = Some 80 is wf_b); it is an invariant of histories: every call of the 19 mutators covered by
   C03_step preserves it (set_port, quirks set_port and quirks set_host store a normalised port, set_scheme
   re-normalises the stored one, every other mutator keeps scheme and port or clears the port) *)
Theorem C03_port_step : forall dbg hp hpo hd u o u', HostWf hp hpo hd -> IpDisp hd ->
  wf_b u = true /\ host_text_ok u -> op_args_ok o -> excl03 u o u' = false ->
  apply_op dbg hp hpo hd u o = Some u' -> PN u -> PN u'.
Proof. intros dbg hp hpo hd u o u' HW HIP K Ha G H. exact (pn_step dbg hp hpo hd HW u o u' HIP K Ha G H). Qed.
Check C03_port_step : forall dbg hp hpo hd u o u', HostWf hp hpo hd -> IpDisp hd ->
  wf_b u = true /\ host_text_ok u -> op_args_ok o -> excl03 u o u' = false ->
  apply_op dbg hp hpo hd u o = Some u' -> PN u -> PN u'.
Print Assumptions C03_port_step.

(* for every reached record, RELATIVE to ParsePN dbg hp hpo hd: "every record Parser::parse_url returns (from a
   base that satisfies PN) satisfies PN" (parse_port normalises against the scheme being parsed, parse_relative
   copies the port together with the scheme); the statement without that hypothesis, proved below
   (C03_port_never_default), is *)
Definition C03_port_never_default_statement : Prop :=
  forall dbg hp hpo hd, HostWf hp hpo hd -> IpDisp hd -> forall u, reach03a dbg hp hpo hd u -> PN u.

Theorem C03_port_never_default_partial : forall dbg hp hpo hd, HostWf hp hpo hd -> IpDisp hd -> ParsePN dbg hp hpo hd ->
  forall u, reach03a dbg hp hpo hd u ->
  PN u /\ forall sch, scheme u = Some sch -> forall p, port_or_known_default u = Some (Some p) ->
            port u = Some p \/ (port u = None /\ default_port sch = Some p).
Proof.
  intros dbg hp hpo hd HW HIP HP u R. split; [exact (reach03a_pn_all dbg hp hpo hd HW HIP u R)|].
  intros sch Hs p Hp. unfold port_or_known_default in Hp. destruct (port u) as [q|].
  - left. inversion Hp. reflexivity.
  - right. rewrite Hs in Hp. cbn in Hp. inversion Hp. split; reflexivity.
Qed.
Print Assumptions C03_port_never_default_partial.

(* ParsePN holds in the form the histories need (Proofs/C03_ParseFront.v parse_url_pnr: the base satisfies
   wf_b, bk and PN - what reach03a's join premise base_ok and the induction give): the statement for every record of
   reach03a, no hypothesis on the parser *)
Theorem C03_port_never_default : C03_port_never_default_statement.
Proof. exact reach03a_pn_all. Qed.
Check C03_port_never_default : forall dbg hp hpo hd, HostWf hp hpo hd -> IpDisp hd ->
  forall u, reach03a dbg hp hpo hd u -> PN u.
Print Assumptions C03_port_never_default.

(* without a hypothesis on the parser: reach03n dbg hp hpo hd (Proofs/C03_PortParse.v) = the part of reach03a whose
   histories start at Url::parse (no base) of a text with a scheme other than "file" (C02's four closed-form
   classes; the input is a &str) or at a file-path constructor, followed by any sequence of mutator calls
   outside known03.  Hypotheses HostRT and host_above of C02 (they imply HostWf).  Joins and file: texts are
   not in reach03n; C03_port_never_default above covers them. *)
Theorem C03_port_never_default_nonfile : forall dbg hp hpo hd, HostRT hp hpo hd -> host_above hp hpo hd -> IpDisp hd ->
  forall u, reach03n dbg hp hpo hd u -> reach03a dbg hp hpo hd u /\ PN u.
Proof.
  intros dbg hp hpo hd HRT HAb HIP u R.
  split; [exact (reach03n_sub dbg hp hpo hd u R) | exact (reach03n_pn dbg hp hpo hd HRT HAb HIP u R)].
Qed.
Check C03_port_never_default_nonfile : forall dbg hp hpo hd, HostRT hp hpo hd -> host_above hp hpo hd -> IpDisp hd ->
  forall u, reach03n dbg hp hpo hd u -> reach03a dbg hp hpo hd u /\ PN u.
Print Assumptions C03_port_never_default_nonfile.

Example C03_port_never_default_nonfile_inhabited :
  (HostRT ex_hp ex_hp ex_hd2 /\ host_above ex_hp ex_hp ex_hd2) /\ IpDisp ex_hd2
  /\ nonfile_input (B "http://h:81/") = true.
Proof. split; [exact ex2_host_RT|]. split; [exact ex2_ip_disp | vm_compute; reflexivity]. Qed.

(* non-vacuity: "http://h:81/" parsed with the example host functions satisfies PN; set_port(Some 80) on it is a
   step outside the exclusion and clears the port *)
Example C03_port_step_inhabited :
  match parse_url true ex_hp ex_hp ex_hd2 None None (B "http://h:81/") with
  | POk u => opt_eqb (port u) (Some 81)
             && match apply_op true ex_hp ex_hp ex_hd2 u (OSetPort (Some 80)) with
                | Some u' => negb (excl03 u (OSetPort (Some 80)) u') && opt_eqb (port u') None
                             && list_eqb (ser u') (B "http://h/")
                | None => false
                end
  | _ => false
  end = true.
Proof. vm_compute. reflexivity. Qed.

(* Eq / Ord / Hash / Display: transcriptions of lib.rs:2768-2864 (every impl delegates to self.serialization),
   so these clauses are definitional; the content is in C03_eq_records: for fixpoints of re-parsing (C02's
   property) equal serializations mean equal RECORDS - all ten fields - so every accessor agrees *)
Theorem C03_eq_ord_hash : forall u v,
  (url_eq u v = true <-> ser u = ser v)
  /\ (url_cmp u v = Eq <-> ser u = ser v)
  /\ (url_eq u v = true -> forall H (h : list N -> H), url_hash h u = url_hash h v)
  /\ url_display u = ser u.
Proof. exact eq_ord_hash_by_serialization. Qed.
Print Assumptions C03_eq_ord_hash.

Theorem C03_eq_records : forall dbg hp hpo hd u v,
  Fixpoint_of_reparse dbg hp hpo hd u -> Fixpoint_of_reparse dbg hp hpo hd v -> url_eq u v = true -> u = v.
Proof. exact eq_records. Qed.
Check C03_eq_records : forall dbg hp hpo hd u v,
  Fixpoint_of_reparse dbg hp hpo hd u -> Fixpoint_of_reparse dbg hp hpo hd v -> url_eq u v = true -> u = v.
Print Assumptions C03_eq_records.

(* String conversion / FromStr / TryFrom<&str> and the serde string form round-trip for fixpoints of re-parsing
   (by definition of the fixpoint property: C02's theorems say which records have it); serialize_internal /
   deserialize_internal round-trip for every record in release builds and, in debug builds (check_invariants
   re-parses), for well-formed fixpoints *)
Theorem C03_round_trips : forall dbg hp hpo hd u, Fixpoint_of_reparse dbg hp hpo hd u ->
  url_from_str dbg hp hpo hd (utf8_lossy (url_display u)) = POk u
  /\ serde_deserialize dbg hp hpo hd (serde_serialize u) = POk u
  /\ (wf_b u = true -> deserialize_internal dbg hp hpo hd (serialize_internal u) = Some u).
Proof.
  intros dbg hp hpo hd u F. destruct (string_round_trips dbg hp hpo hd u F) as [A B0].
  split; [exact A|]. split; [exact B0|]. intros W. exact (internal_round_trip dbg hp hpo hd u W F).
Qed.
Print Assumptions C03_round_trips.

Theorem C03_internal_round_trip_release : forall hp hpo hd u,
  deserialize_internal false hp hpo hd (serialize_internal u) = Some u.
Proof. intros hp hpo hd u. exact (internal_round_trip_release false hp hpo hd u eq_refl). Qed.
Print Assumptions C03_internal_round_trip_release.

(* the fixpoint hypothesis is inhabited: "a://h/p?q#f" with the toy host functions of C02_Reach.v *)
Example C03_round_trips_inhabited :
  match toy_parse "a://h/p?q#f" with
  | POk u => pres_eqb (reparse true toy_hp toy_hp toy_hd u) u && wf_b u
  | _ => false
  end = true.
Proof. vm_compute. reflexivity. Qed.

(* the same clauses for REACHED records: every record of C02's ReachC4 (Proofs/C02_Reach5.v: Url::parse of a &str with a
   scheme other than file, joins of "", "?q", "#f" references, all 19 mutators outside known_step3 = known_step2 [incl.
   F-C02-9, set_ip_host V4 on a non-special scheme] + Known_F_C02_10 - path_segments_mut sessions on opaque paths only -,
   query_pairs_mut sessions, serializations within u32) is a fixpoint of re-parsing (C02_reach_partial4), so
   String / FromStr / TryFrom<&str>, the serde string form and serialize_internal / deserialize_internal (debug builds
   included) round-trip, and equal serializations mean equal records.  HostOK2, host_nonempty: C02's hypotheses.
   ReachC4 does not contain the file scheme, joins through the path arms and path_segments_mut sessions on hierarchical
   records.  C02's larger relations ReachC5 .. ReachC9 contain such histories and their records are fixpoints of
   re-parsing too (C02_reach_partial5 .. C02_reach_partial9; ReachC9 under the further hypothesis host_no_wdl); the
   clauses here are stated for ReachC4 only (for any fixpoint: C03_round_trips above). *)
Theorem C03_round_trips_reach : forall dbg hp hpo hd, HostOK2 hp hpo hd -> host_nonempty hp hpo ->
  forall u, ReachC4 dbg hp hpo hd u ->
  url_from_str dbg hp hpo hd (utf8_lossy (url_display u)) = POk u
  /\ serde_deserialize dbg hp hpo hd (serde_serialize u) = POk u
  /\ deserialize_internal dbg hp hpo hd (serialize_internal u) = Some u.
Proof. exact round_trips_reach. Qed.
Check C03_round_trips_reach : forall dbg hp hpo hd, HostOK2 hp hpo hd -> host_nonempty hp hpo ->
  forall u, ReachC4 dbg hp hpo hd u ->
  url_from_str dbg hp hpo hd (utf8_lossy (url_display u)) = POk u
  /\ serde_deserialize dbg hp hpo hd (serde_serialize u) = POk u
  /\ deserialize_internal dbg hp hpo hd (serialize_internal u) = Some u.
Print Assumptions C03_round_trips_reach.

Theorem C03_eq_records_reach : forall dbg hp hpo hd, HostOK2 hp hpo hd -> host_nonempty hp hpo ->
  forall u v, ReachC4 dbg hp hpo hd u -> ReachC4 dbg hp hpo hd v -> url_eq u v = true -> u = v.
Proof. exact eq_records_reach. Qed.
Check C03_eq_records_reach : forall dbg hp hpo hd, HostOK2 hp hpo hd -> host_nonempty hp hpo ->
  forall u v, ReachC4 dbg hp hpo hd u -> ReachC4 dbg hp hpo hd v -> url_eq u v = true -> u = v.
Print Assumptions C03_eq_records_reach.

(* with the host model: the only premise is IdnaOK idna *)
Theorem C03_round_trips_reach_model : forall dbg idna, C09_Host.IdnaOK idna ->
  forall u, ReachC4 dbg (Host.host_parse idna) Host.host_parse_opaque Host.host_display u ->
  url_from_str dbg (Host.host_parse idna) Host.host_parse_opaque Host.host_display (utf8_lossy (url_display u)) = POk u
  /\ serde_deserialize dbg (Host.host_parse idna) Host.host_parse_opaque Host.host_display (serde_serialize u) = POk u
  /\ deserialize_internal dbg (Host.host_parse idna) Host.host_parse_opaque Host.host_display (serialize_internal u) = Some u.
Proof. exact round_trips_reach_model. Qed.
Print Assumptions C03_round_trips_reach_model.

(* non-vacuity, on the host model with the oracle idna_clean: the hypotheses hold, and the history parse
   "http://1.2.3.4:81/p", quirks set_hostname "[::1]", set_query "k=v" -> "http://[::1]:81/p?k=v" is in ReachC4 *)
Example C03_round_trips_reach_inhabited :
  (HostOK2 mhp0 Host.host_parse_opaque Host.host_display /\ host_nonempty mhp0 Host.host_parse_opaque)
  /\ reachc4_example_stmt.
Proof. split; [exact reachfin_hyps | exact reachc4_example]. Qed.

(* "never split a character" for C02's quantifier: the serialization of every Reachable3 record consists of bytes
   0x20..0x7E (hypotheses of C03_reachability_full), hence is ASCII and every Position slice is on a character boundary *)
Theorem C03_reachable_ascii : forall dbg hp hpo hd, HostWf hp hpo hd -> host_nonempty hp hpo -> IpWf hd ->
  C05_Parser.HostOK hp hpo hd -> C05_Alphabet.IpOKv hd ->
  forall u, Reachable3 dbg hp hpo hd u -> Forall ok_or_space (ser u) /\ ascii (ser u).
Proof. exact reach3_ascii. Qed.
Check C03_reachable_ascii : forall dbg hp hpo hd, HostWf hp hpo hd -> host_nonempty hp hpo -> IpWf hd ->
  C05_Parser.HostOK hp hpo hd -> C05_Alphabet.IpOKv hd ->
  forall u, Reachable3 dbg hp hpo hd u -> Forall ok_or_space (ser u) /\ ascii (ser u).
Print Assumptions C03_reachable_ascii.

(* V2. host() / host_str() / domain() / has_host() agree on every reached record *)
(* C03_views says nothing on one clause, which wf_b does not decide: for an IP host, host_str() (a slice of the serialization) against
   host() (the stored address).  KT hd u (Proofs/C03_HostKind.v): if the stored host kind is Ipv4(a) / Ipv6(p), the host
   slice is the Display text hd of that address.  (For a domain nothing is stored: host() is Domain(host slice).)  wf_b
   does not imply KT; it is an invariant of histories:
     - EVERY record Parser::parse_url returns satisfies it (any input, override, build; file scheme included), from a base
       with inv03 and KT; hypothesis HostWf only; *)
Theorem C03_host_text_parse : forall dbg hp hpo hd ovr base input u, HostWf hp hpo hd ->
  match base with Some b => inv03 b /\ KT hd b | None => True end ->
  parse_url dbg hp hpo hd ovr base input = POk u -> KT hd u.
Proof. exact parse_url_kt_inv. Qed.
Check C03_host_text_parse : forall dbg hp hpo hd ovr base input u, HostWf hp hpo hd ->
  match base with Some b => inv03 b /\ KT hd b | None => True end ->
  parse_url dbg hp hpo hd ovr base input = POk u -> KT hd u.
Print Assumptions C03_host_text_parse.

(*   - one call of any of the 19 mutators outside excl03 keeps it, with NO hypothesis on the host functions and no further
       exclusion: a host setter leaves the record as it was, or ends in set_host_internal, which writes Display(h) and stores
       the kind of h, or stores no host; every other mutator keeps the stored kind and the host text.  In particular
       F-C02-9 (set_ip_host V4 on a non-special scheme) does not break it - the text written IS the display of the address
       stored; what F-C02-9 breaks is the re-parse fixpoint (C02).  (wf_b u' follows from C03_step.) *)
Theorem C03_host_text_step : forall dbg hp hpo hd u o u', (wf_b u = true /\ host_text_ok u) -> wf_b u' = true ->
  op_args_ok o -> excl03 u o u' = false -> apply_op dbg hp hpo hd u o = Some u' -> KT hd u -> KT hd u'.
Proof. exact kt_step. Qed.
Check C03_host_text_step : forall dbg hp hpo hd u o u', (wf_b u = true /\ host_text_ok u) -> wf_b u' = true ->
  op_args_ok o -> excl03 u o u' = false -> apply_op dbg hp hpo hd u o = Some u' -> KT hd u -> KT hd u'.
Print Assumptions C03_host_text_step.

(* the views of a wf_b record with KT: no host - host(), host_str(), domain() are None; a domain host t - host() =
   Domain(t), host_str() = domain() = t; an address h - host() = h, host_str() = Display(h), domain() = None *)
Theorem C03_host_views : forall hd u, wf_b u = true -> KT hd u -> views3 hd u.
Proof. exact views_agree. Qed.
Check C03_host_views : forall hd u, wf_b u = true -> KT hd u ->
  (has_host u = false /\ host_of u = Some None /\ host_str u = Some None /\ domain u = Some None)
  \/ (has_host u = true /\ exists t, host_of u = Some (Some (HDomain t)) /\ host_str u = Some (Some t) /\ domain u = Some (Some t))
  \/ (has_host u = true /\ exists h, C05_Setters.is_ip h /\ host_of u = Some (Some h) /\ host_str u = Some (Some (hd h))
                          /\ domain u = Some None).
Print Assumptions C03_host_views.

(* KT is not a consequence of wf_b: the record "a://1.2.3.4/" with the stored kind Ipv4(0.0.0.0) is wf_b, its host() is
   0.0.0.0 and its host_str() is "1.2.3.4" - which is why C03_views stops short of this clause *)
Example C03_host_views_need_KT :
  let u := mkUrl [97; 58; 47; 47; 49; 46; 50; 46; 51; 46; 52; 47] 1 4 4 11 (HI_Ipv4 0) None 11 None None in
  wf_b u = true /\ host_of u = Some (Some (HIpv4 0)) /\ host_str u = Some (Some [49; 46; 50; 46; 51; 46; 52])
  /\ Host.host_display (HIpv4 0) = [48; 46; 48; 46; 48; 46; 48].
Proof. vm_compute. repeat split. Qed.

(* every record of reach03j (R4: parse of ANY text, joins against any reached record, the file-path constructors, all 19
   mutators outside the known classes excl03k = F-C03-5, F-C02-2, F-C02-8, parts of F-C02-3 / F-C02-4; F-C02-9 is inside) *)
Theorem C03_views_reach_joins : forall dbg hp hpo hd, HostWf hp hpo hd -> NoEmpty hp -> IpWf hd ->
  forall u, reach03j dbg hp hpo hd u -> KT hd u /\ views3 hd u.
Proof. exact views_reach_joins. Qed.
Check C03_views_reach_joins : forall dbg hp hpo hd, HostWf hp hpo hd -> NoEmpty hp -> IpWf hd ->
  forall u, reach03j dbg hp hpo hd u -> KT hd u /\ views3 hd u.
Print Assumptions C03_views_reach_joins.

(* every record of C02's quantifier Reachable3 (R5; hypotheses as in C03_reachability_full) *)
Theorem C03_views_reachable : forall dbg hp hpo hd, HostWf hp hpo hd -> host_nonempty hp hpo -> IpWf hd ->
  C05_Parser.HostOK hp hpo hd -> C05_Alphabet.IpOKv hd ->
  forall u, Reachable3 dbg hp hpo hd u -> KT hd u /\ views3 hd u.
Proof. exact views_reachable. Qed.
Check C03_views_reachable : forall dbg hp hpo hd, HostWf hp hpo hd -> host_nonempty hp hpo -> IpWf hd ->
  C05_Parser.HostOK hp hpo hd -> C05_Alphabet.IpOKv hd ->
  forall u, Reachable3 dbg hp hpo hd u -> KT hd u /\ views3 hd u.
Print Assumptions C03_views_reachable.

(* with the host MODEL (a domain prints as itself) the uniform statement: host_str() = host().map(Display), has_host() =
   host().is_some(), domain() = the payload of Host::Domain; the only premise is IdnaOK idna *)
Theorem C03_views_reachable_model : forall dbg idna, C09_Host.IdnaOK idna ->
  forall u, Reachable3 dbg (Host.host_parse idna) Host.host_parse_opaque Host.host_display u ->
  exists ho, host_of u = Some ho
    /\ host_str u = Some (option_map Host.host_display ho)
    /\ has_host u = (match ho with Some _ => true | None => false end)
    /\ domain u = Some (match ho with Some (HDomain t) => Some t | _ => None end).
Proof. exact views_reachable_model. Qed.
Check C03_views_reachable_model : forall dbg idna, C09_Host.IdnaOK idna ->
  forall u, Reachable3 dbg (Host.host_parse idna) Host.host_parse_opaque Host.host_display u -> views_model u.
Print Assumptions C03_views_reachable_model.

Theorem C03_views_reach_joins_model : forall dbg idna, C09_Host.IdnaOK idna ->
  forall u, reach03j dbg (Host.host_parse idna) Host.host_parse_opaque Host.host_display u -> views_model u.
Proof. exact views_reach_joins_model. Qed.
Print Assumptions C03_views_reach_joins_model.

(* non-vacuity, on the host model with the oracle idna_clean: the hypotheses of C03_views_reach_joins hold, and the history
   parse "a://h/p", set_ip_host(127.0.0.1) - a call INSIDE the class F-C02-9 (known_step2 = true) - is in reach03j and gives
   "a://127.0.0.1/p" with the stored kind Ipv4(127.0.0.1), host_str() = "127.0.0.1", host() = Ipv4(127.0.0.1) *)
Example C03_views_reach_joins_inhabited :
  (HostWf mhp1 Host.host_parse_opaque Host.host_display /\ NoEmpty mhp1 /\ IpWf Host.host_display) /\ kt_example_stmt.
Proof. split; [exact model_joins_hyps | exact kt_example]. Qed.

(* V3. a special scheme implies a non-empty path that starts with '/' *)
From RU Require Proofs.C03_InvSP Proofs.C03_InvSPSteps Proofs.C03_InvSPReach Proofs.C04_SetPath Proofs.C05_HostText.
(* SP u (Proofs/C03_InvSP.v): if the scheme of the record is special, the byte of the serialization at path_start is '/'
   (hence path() is not empty and starts with '/': C03_special_path_getter).  wf_b does not imply it - "http://h" with an
   empty path is wf_b (C03_special_path_need_SP) - and PathSegmentsMut::new asserts it in debug builds
   (C04_SetPath.psm_assert_fails).  It is an invariant of histories:
     - EVERY record Parser::parse_url returns satisfies it (any input numbers, any override, both builds, the file states
       included), from a base with inv03 and SP; hypothesis HostWf only; *)
Theorem C03_special_path_parse : forall dbg hp hpo hd ovr base input u, HostWf hp hpo hd ->
  match base with Some b => inv03 b /\ C03_InvSP.SP b | None => True end ->
  parse_url dbg hp hpo hd ovr base input = POk u -> C03_InvSP.SP u.
Proof. exact C03_InvSP.parse_url_sp_inv. Qed.
Check C03_special_path_parse : forall dbg hp hpo hd ovr base input u, HostWf hp hpo hd ->
  match base with
  | Some b => inv03 b /\ (C05_HostText.spb b = true -> nnth (ser b) (path_start b) = Some 47)
  | None => True
  end ->
  parse_url dbg hp hpo hd ovr base input = POk u ->
  C05_HostText.spb u = true -> nnth (ser u) (path_start u) = Some 47.
Print Assumptions C03_special_path_parse.

(*   - one call of any of the 19 mutators outside excl03 keeps it (hypotheses HostWf, IpDisp; the record satisfies wfh and
       AS = "special => ://"): a step never makes a non-special scheme special; on a special URL the setters of fragment,
       query, port, host, credentials and scheme keep path(); Url::set_path / quirks set_pathname write a path through
       parse_path_start, which pushes '/' for a special scheme; path_segments_mut sessions truncate behind the first '/' and
       enter the path state behind it *)
Theorem C03_special_path_step : forall dbg hp hpo hd u o u', HostWf hp hpo hd -> IpDisp hd ->
  (wf_b u = true /\ host_text_ok u) -> AS u -> op_args_ok o -> excl03 u o u' = false ->
  apply_op dbg hp hpo hd u o = Some u' -> C03_InvSP.SP u -> C03_InvSP.SP u'.
Proof. intros dbg hp hpo hd u o u' HW HI K A Ha G H S. exact (C03_InvSPSteps.sp_step dbg hp hpo hd HW u o u' HI K A Ha G H S). Qed.
Check C03_special_path_step : forall dbg hp hpo hd u o u', HostWf hp hpo hd -> IpDisp hd ->
  (wf_b u = true /\ host_text_ok u) -> AS u -> op_args_ok o -> excl03 u o u' = false ->
  apply_op dbg hp hpo hd u o = Some u' -> C03_InvSP.SP u -> C03_InvSP.SP u'.
Print Assumptions C03_special_path_step.

(* on a well-formed record SP is the statement about the getter: path() = "/..." *)
Theorem C03_special_path_getter : forall u, wf_b u = true ->
  (nnth (ser u) (path_start u) = Some 47 <-> exists r, path u = Some (47 :: r)).
Proof. exact C03_InvSPSteps.path_sl_getter. Qed.
Print Assumptions C03_special_path_getter.

(* every record of reach03j (R4: parse of ANY text, joins, the file-path constructors, all 19 mutators outside the known
   classes excl03k) and of C02's quantifier Reachable3 (R5; hypotheses as in C03_reachability_full): a special scheme
   implies path() = "/...", and PathSegmentsMut::new's debug assertion holds (C04_no_panic_reachable3b uses it) *)
Theorem C03_special_path_reach_joins : forall dbg hp hpo hd, HostWf hp hpo hd -> NoEmpty hp -> IpWf hd ->
  forall u, reach03j dbg hp hpo hd u ->
  C03_InvSP.SP u /\ (C05_HostText.spb u = true -> exists r, path u = Some (47 :: r)).
Proof.
  intros dbg hp hpo hd HW HNE HIPW u R.
  destruct (C03_InvSPReach.reach03j_inv03s dbg hp hpo hd HW HNE HIPW u R) as [([W _] & _) S].
  split; [exact S|]. intros Hs. exact (proj1 (C03_InvSPSteps.path_sl_getter u W) (S Hs)).
Qed.
Check C03_special_path_reach_joins : forall dbg hp hpo hd, HostWf hp hpo hd -> NoEmpty hp -> IpWf hd ->
  forall u, reach03j dbg hp hpo hd u ->
  C03_InvSP.SP u /\ (C05_HostText.spb u = true -> exists r, path u = Some (47 :: r)).
Print Assumptions C03_special_path_reach_joins.

Theorem C03_special_path_reachable : forall dbg hp hpo hd, HostWf hp hpo hd -> host_nonempty hp hpo -> IpWf hd ->
  C05_Parser.HostOK hp hpo hd -> C05_Alphabet.IpOKv hd ->
  forall u, Reachable3 dbg hp hpo hd u ->
  C03_InvSP.SP u /\ (C05_HostText.spb u = true -> exists r, path u = Some (47 :: r))
  /\ C04_SetPath.psm_assert_fails u = false.
Proof.
  intros dbg hp hpo hd HW HNE HIPW HOK HIP u R.
  destruct (C03_InvSPReach.reach3_inv03s dbg hp hpo hd HW HNE HIPW HOK HIP u R) as [[([W _] & _) S] _].
  split; [exact S|]. split; [|exact (C03_InvSPReach.sp_psm_assert u S)].
  intros Hs. exact (proj1 (C03_InvSPSteps.path_sl_getter u W) (S Hs)).
Qed.
Check C03_special_path_reachable : forall dbg hp hpo hd, HostWf hp hpo hd -> host_nonempty hp hpo -> IpWf hd ->
  C05_Parser.HostOK hp hpo hd -> C05_Alphabet.IpOKv hd ->
  forall u, Reachable3 dbg hp hpo hd u ->
  C03_InvSP.SP u /\ (C05_HostText.spb u = true -> exists r, path u = Some (47 :: r))
  /\ C04_SetPath.psm_assert_fails u = false.
Print Assumptions C03_special_path_reachable.

(* SP is not a consequence of wf_b: the record "http://h" (empty path) is wf_b, special, and its byte at path_start does
   not exist; the hypotheses of C03_special_path_reachable are those of C03_reachability_full_inhabited, whose history
   exists; and a special parse result: "http://h" parses to "http://h/" with the example host functions *)
Example C03_special_path_need_SP :
  (let u := mkUrl [104;116;116;112;58;47;47;104] 4 7 7 8 HI_Domain None 8 None None in
   wf_b u = true /\ C05_HostText.spb u = true /\ nnth (ser u) (path_start u) = None /\ path u = Some [])
  /\ match parse_url true ex_hp ex_hp ex_hd2 None None (B "http://h") with
     | POk u => C05_HostText.spb u && list_eqb (ser u) (B "http://h/") && (path_start u =? 8)
     | _ => false
     end = true.
Proof. vm_compute. repeat split. Qed.

(* non-vacuity of C03_special_path_step: on "http://h/a" (parsed with the example host functions) set_path("x"), a
   path_segments_mut session pop / pop and set_host(Some "g") are steps outside excl03 with arguments in op_args_ok; the
   results "http://h/x", "http://h/", "http://g/a" keep '/' at path_start *)
Example C03_special_path_step_inhabited :
  match parse_url true ex_hp ex_hp ex_hd2 None None (B "http://h/a") with
  | POk u =>
      let ok o := match apply_op true ex_hp ex_hp ex_hd2 u o with
                  | Some u' => negb (excl03 u o u') && C05_HostText.spb u'
                               && match nnth (ser u') (path_start u') with Some 47 => true | _ => false end
                  | None => false
                  end in
      ok (OSetPath (B "x")) && ok (OPathSegments [PPop; PPop]) && ok (OSetHost (Some (B "g")))
  | _ => false
  end = true.
Proof. vm_compute. reflexivity. Qed.
