(* Properties/C04.v - total, panic-free, linear-time public API.  Statements; the lemmas are in Proofs/C04_*.v,
   Proofs/Idna_*.v and the Proofs files of the other properties, and a theorem here is closed by `exact` or by a
   short assembly of those lemmas.
   C04 is the aggregation property: the panic-freedom theorems of the other properties are collected
   here per crate group (re-stated on the model's panic outcome), the missing ones are added, every
   audited unsafe site gets its UTF-8 theorem, the loop functions get step-count (cost) theorems, and
   the inventory theorems tie the whole to the shape of the source tree.
   A full-strength statement that is not the theorem proved next to it is written as a Definition
   (…_statement); the comments and theorems around it say whether it is proved further down, proved under
   further hypotheses, false of the crate (a finding), or refuted; see also theorem_notes in tools/props_d/C04.py.
   Modules whose names clash (Ok / Err / Panic, decode, parse, position) are required without import and used
   with qualified names. *)
From RU Require Import Base.Prelude Base.Utf8 Model.AsciiSet Gen.Tables Model.PercentEncoding
  Model.HostT Model.UrlRecord Model.Parser Model.WF Model.Cost Model.UnsafeSites.
From RU Require Base.U32_c13 Base.Outcome_c15 Model.Punycode Model.FormUrlencoded Model.Base64 Model.Mime
  Model.Host Model.Setters Model.Uts46 Model.FilePath Model.Origin.
From RU Require Proofs.C04_Inventory Proofs.C04_Cost Proofs.C04_CostPath Proofs.C04_Parse Proofs.C04_PathTotal
  Proofs.C04_ParseTotal Proofs.C04_PathFile Proofs.C04_ParseFile Proofs.C06_List Proofs.C04_Utf8
  Proofs.C04_NoPanic Proofs.C04_CostIdna Proofs.C13_Known Proofs.C15_Main Proofs.C15_Ser Proofs.C09_Reject
  Proofs.C06_Main Proofs.C03_WF Proofs.C02_PathL1 Proofs.Idna_Api Proofs.Idna_Hyp Proofs.Idna_Known
  Proofs.C04_PathCtx Proofs.C04_SetPath Proofs.C04_SetHost Proofs.C04_ParseFile7 Proofs.C06_Host
  Proofs.C04_Uts46_Inner Proofs.C04_Uts46_Api Proofs.Idna_C10_Inner Proofs.C04_Quad Proofs.C04_Chain.
From RU Require Properties.C03 Properties.C06 Properties.C09 Properties.C10 Properties.C11 Properties.C13
  Properties.C14 Properties.C15 Properties.C16 Properties.C18 Properties.C19 Properties.C20.

(* ================================================================== 1. inventory *)
(* the regenerated lists of public functions, unsafe sites and panic-macro sites of the five crates
   are exactly the audited ones: a new `pub fn`, `unsafe` block or panic!/assert! breaks this theorem *)
Theorem C04_inventory :
  T_C04_API = C04_Inventory.api_bytes /\ T_C04_UNSAFE = C04_Inventory.unsafe_bytes
  /\ T_C04_PANICS = C04_Inventory.panic_bytes
  /\ length C04_Inventory.modelled_api = 167%nat /\ length C04_Inventory.audited_unsafe_sites = 22%nat
  /\ length C04_Inventory.audited_panic_sites = 50%nat.
Proof.
  exact (conj C04_Inventory.inventory_api (conj C04_Inventory.inventory_unsafe
        (conj C04_Inventory.inventory_panics C04_Inventory.inventory_sizes))).
Qed.
Check C04_inventory :
  T_C04_API = C04_Inventory.api_bytes /\ T_C04_UNSAFE = C04_Inventory.unsafe_bytes
  /\ T_C04_PANICS = C04_Inventory.panic_bytes
  /\ length C04_Inventory.modelled_api = 167%nat /\ length C04_Inventory.audited_unsafe_sites = 22%nat
  /\ length C04_Inventory.audited_panic_sites = 50%nat.
Print Assumptions C04_inventory.

(* ================================================================== 2. no panic, per crate group *)
(* percent_encoding: the table slice of percent_encode_byte is in range for every u8; the mask index of
   contains / add / remove is in range for ASCII bytes and should_percent_encode never asks about others;
   add / remove panic EXACTLY for bytes >= 0x80 (finding F-C04-4 / F-C14-1).  The iterators (pe_next,
   decode, pd_cow, if_any) have no panic outcome in their types. *)
Theorem C04_no_panic_percent_encoding :
  (forall b, is_byte b -> (N.to_nat (b * T_ENC_STRIDE) + N.to_nat T_ENC_WIDTH <= length T_ENC_TABLE)%nat)
  /\ (forall s b, b < 128 -> aset_contains_o s b <> None /\ aset_add_o s b <> None /\ aset_remove_o s b <> None)
  /\ (forall s b, (128 <=? b) = true \/ aset_contains_o s b <> None)
  /\ (forall s x, aset_add_o s x = None <-> 128 <= x).
Proof.
  exact (conj C04_NoPanic.enc_table_slice_in_range (conj C04_NoPanic.aset_ops_no_panic
        (conj C04_NoPanic.should_encode_no_panic C14.C14_add_panics_iff))).
Qed.
Check C04_no_panic_percent_encoding :
  (forall b, is_byte b -> (N.to_nat (b * T_ENC_STRIDE) + N.to_nat T_ENC_WIDTH <= length T_ENC_TABLE)%nat)
  /\ (forall s b, b < 128 -> aset_contains_o s b <> None /\ aset_add_o s b <> None /\ aset_remove_o s b <> None)
  /\ (forall s b, (128 <=? b) = true \/ aset_contains_o s b <> None)
  /\ (forall s x, aset_add_o s x = None <-> 128 <= x).
Print Assumptions C04_no_panic_percent_encoding.

(* form_urlencoded: parsing is total (no fuel exhaustion), byte_serialize is total, and a serializer
   session panics only inside the documented classes (for_suffix past the end, use after finish) or
   inside Known_C15_1 (finding F-C15-1: start inside a character, then clear()) *)
Theorem C04_no_panic_form_urlencoded :
  (forall bs, FormUrlencoded.parse_next bs <> FormUrlencoded.PFuel
              /\ FormUrlencoded.parse bs = Some (C15_Parse.parse_spec bs)
              /\ exists cs, FormUrlencoded.bser_chunks bs = Outcome_c15.Ok cs)
  /\ (forall target start ops, Forall C15_Ser.op_ok ops -> start <= nlen target ->
        ~ C15_Main.Known_C15_1 target start ops ->
        exists result, C15_Main.str_session target start ops = Outcome_c15.Ok result).
Proof.
  split.
  - intros bs. destruct (C15.C15_views bs) as (H1 & _ & (cs & H3 & _) & _).
    destruct (C15.C15_total bs [] []) as (H4 & _).
    split; [exact H1|]. split; [exact H4|]. exists cs. exact H3.
  - intros target start ops Ho Hs Hk. destruct (C15.C15_suffix target start ops Ho Hs Hk) as (r & Hr & _).
    exists r. exact Hr.
Qed.
Check C04_no_panic_form_urlencoded :
  (forall bs, FormUrlencoded.parse_next bs <> FormUrlencoded.PFuel
              /\ FormUrlencoded.parse bs = Some (C15_Parse.parse_spec bs)
              /\ exists cs, FormUrlencoded.bser_chunks bs = Outcome_c15.Ok cs)
  /\ (forall target start ops, Forall C15_Ser.op_ok ops -> start <= nlen target ->
        ~ C15_Main.Known_C15_1 target start ops ->
        exists result, C15_Main.str_session target start ops = Outcome_c15.Ok result).
Print Assumptions C04_no_panic_form_urlencoded.

(* data-url: the slice-panic outcome of the body decoders is unreachable for EVERY sink; the base64
   decoder has no panic outcome (saturating padding counter); MIME parsing and display are total *)
Theorem C04_no_panic_data_url :
  (forall (W E : Type) (write : W -> list N -> W * option E) base64 w body,
     snd (Base64.decode_without_base64 write w body) <> Base64.BodyPanic
     /\ snd (Base64.decode_with_base64 write w body) <> Base64.BodyPanic
     /\ snd (Base64.data_url_decode write base64 w body) <> Base64.BodyPanic)
  /\ (forall s, usv_list s -> exists r, Mime.parse s = Mime.Ok r).
Proof.
  split.
  - intros W E write base64 w body.
    exact (conj (C04_NoPanic.dwo_no_panic write w body) (conj (C04_NoPanic.dwb_no_panic write w body)
          (C04_NoPanic.data_url_decode_no_panic write base64 w body))).
  - exact (proj1 C19.C19_total).
Qed.
Check C04_no_panic_data_url :
  (forall (W E : Type) (write : W -> list N -> W * option E) base64 w body,
     snd (Base64.decode_without_base64 write w body) <> Base64.BodyPanic
     /\ snd (Base64.decode_with_base64 write w body) <> Base64.BodyPanic
     /\ snd (Base64.data_url_decode write base64 w body) <> Base64.BodyPanic)
  /\ (forall s, usv_list s -> exists r, Mime.parse s = Mime.Ok r).
Print Assumptions C04_no_panic_data_url.

(* idna::punycode: encoders never panic; decoders never panic outside Known_C13_2 (finding F-C13-2:
   2^32 code units); same for the crate-internal decoder instantiations *)
Theorem C04_no_panic_punycode : forall cfg,
  (forall s site, Punycode.encode cfg s <> U32_c13.Panic site /\ Punycode.encode_str cfg s <> U32_c13.Panic site)
  /\ (forall p, ~ C13_Known.Known_C13_2 p ->
        forall site, Punycode.decode cfg p <> U32_c13.Panic site
                     /\ Punycode.decode_to_string cfg p <> U32_c13.Panic site)
  /\ (forall it p, ~ C13_Known.Known_C13_2 p -> forall site, Punycode.decode_with cfg it p <> U32_c13.Panic site).
Proof.
  intros cfg. destruct (C13.C13_safe cfg) as [He Hd]. split; [|split].
  - intros s site. destruct (He s) as [[H1|H1] [H2|H2]]; rewrite H1, H2; split; discriminate.
  - intros p Hk site. destruct (Hd p Hk) as (H1 & H2 & _). exact (conj (H1 site) (H2 site)).
  - intros it p Hk site. exact (C13.C13_safe_internal_decoder cfg it p Hk site).
Qed.
Check C04_no_panic_punycode : forall cfg,
  (forall s site, Punycode.encode cfg s <> U32_c13.Panic site /\ Punycode.encode_str cfg s <> U32_c13.Panic site)
  /\ (forall p, ~ C13_Known.Known_C13_2 p ->
        forall site, Punycode.decode cfg p <> U32_c13.Panic site
                     /\ Punycode.decode_to_string cfg p <> U32_c13.Panic site)
  /\ (forall it p, ~ C13_Known.Known_C13_2 p -> forall site, Punycode.decode_with cfg it p <> U32_c13.Panic site).
Print Assumptions C04_no_panic_punycode.

(* idna::uts46.  Full statement (not proved): outside Known_C11 (finding F-C11-2: the debug assertion
   of to_user_interface) no entry point reaches a panic site.  Proved: the fastest tier (lower-case
   letters, digits... and dots) returns without a panic in every mode and both configurations. *)
Definition C04_no_panic_uts46_statement : Prop :=
  forall A cfg d deny hy dns p, Idna_Hyp.AdapterOK A -> bytes d ->
    Idna_Known.Known_C11 A cfg d deny hy = false ->
    (forall site, Uts46.to_ascii A cfg d deny hy dns <> U32_c13.Panic site)
    /\ (forall site, Uts46.to_user_interface A cfg d deny hy p <> Uts46.UIPanic site).
Theorem C04_no_panic_uts46_partial : forall A cfg d deny hy p, bytes d -> Uts46.fast_tier d d = None ->
  Uts46.to_ascii A cfg d deny hy Uts46.DIgnore = U32_c13.Ok (true, d)
  /\ Uts46.to_user_interface A cfg d deny hy p = Uts46.UI true d false.
Proof.
  intros A cfg d deny hy p Hb H.
  exact (conj (Idna_Api.to_ascii_fast A cfg d deny hy H) (Idna_Api.to_ui_fast A cfg d deny hy p H)).
Qed.
Check C04_no_panic_uts46_partial : forall A cfg d deny hy p, bytes d -> Uts46.fast_tier d d = None ->
  Uts46.to_ascii A cfg d deny hy Uts46.DIgnore = U32_c13.Ok (true, d)
  /\ Uts46.to_user_interface A cfg d deny hy p = Uts46.UI true d false.
Print Assumptions C04_no_panic_uts46_partial.

(* proved beyond the fastest tier (Proofs/C04_Uts46_Inner.v): the whole label pipeline process_inner - ASCII fast
   paths, mapping and normalization, Punycode decoding and re-validation, check_label with ContextJ, the bidi
   rule - reaches none of its panic sites (the decoder's overflow panics: its input is capped at 2000 code units;
   uts46.rs 1275, 1618, 1590, 1650), for EVERY byte input, every deny list and hyphen mode, both error modes and
   both configurations, for every adapter whose normalizer functions return code points below 2^32 other than
   U+200F (AdapterNP).  The hypothesis is needed (second part: with the identity adapter the input U+200F fails
   debug_assert_ne!(c, RLM) in is_bidi).
   Not in this theorem: the debug assertions and unwraps of the two output walks of process (782, 789, 805-899,
   928-992) and the unreachable!() behind the Punycode encoder (445), which need the positional invariant between
   passthrough_up_to, domain_buffer and already_punycode in both error modes; they are in C04_no_panic_uts46
   (C04_no_panic_uts46_statement2; C04_no_panic_uts46_statement itself is refuted below). *)
Theorem C04_no_panic_uts46_partial2 :
  (forall A cfg ff hy deny d, C04_Uts46_Inner.AdapterNP A -> bytes d ->
     forall site, Uts46.process_inner A cfg ff hy deny d <> Uts46.IPanic site)
  /\ Uts46.process_inner C04_Uts46_Inner.id_adapter true false Uts46.HAllow Uts46.DENY_EMPTY [226; 128; 143] = Uts46.IPanic 1650.
Proof.
  split.
  - intros A cfg ff hy deny d HA Hb site. exact (C04_Uts46_Inner.process_inner_np A cfg HA ff hy deny d Hb site).
  - exact C04_Uts46_Inner.np_needed.
Qed.
Check C04_no_panic_uts46_partial2 :
  (forall A cfg ff hy deny d, C04_Uts46_Inner.AdapterNP A -> bytes d ->
     forall site, Uts46.process_inner A cfg ff hy deny d <> Uts46.IPanic site)
  /\ Uts46.process_inner C04_Uts46_Inner.id_adapter true false Uts46.HAllow Uts46.DENY_EMPTY [226; 128; 143] = Uts46.IPanic 1650.
Print Assumptions C04_no_panic_uts46_partial2.

(* finding F-C04-13, exactly: when the processing wrote its output, the deprecated Idna::to_ascii(domain, out)
   panics iff debug assertions are on, verify_dns_length is configured and the UTF-8 text of  out ++ written  is
   not ASCII (the check is applied to the whole of `out`); witness: out = "e-acute", domain "e-acute x" *)
Theorem C04_13_exact : forall A cfg c domain out s x,
  Uts46.process A cfg true Uts46.never_unicode
    (utf8_encode (Uts46.map_transitional domain (Uts46.transitional_processing c)))
    (Uts46.config_deny_list c) (Uts46.config_hyphens c) None None false = (Uts46.PWroteToSink, s, x) ->
  (U32_c13.is_panic (Uts46.idna_to_ascii A cfg c domain out) = true
   <-> cfg = true /\ Uts46.cfg_verify_dns_length c = true /\ Uts46.is_ascii_l (utf8_encode (out ++ s)) = false).
Proof. exact C04_Uts46_Api.idna_to_ascii_wrote. Qed.
Check C04_13_exact : forall A cfg c domain out s x,
  Uts46.process A cfg true Uts46.never_unicode
    (utf8_encode (Uts46.map_transitional domain (Uts46.transitional_processing c)))
    (Uts46.config_deny_list c) (Uts46.config_hyphens c) None None false = (Uts46.PWroteToSink, s, x) ->
  (U32_c13.is_panic (Uts46.idna_to_ascii A cfg c domain out) = true
   <-> cfg = true /\ Uts46.cfg_verify_dns_length c = true /\ Uts46.is_ascii_l (utf8_encode (out ++ s)) = false).
Print Assumptions C04_13_exact.

Theorem C04_13_refuted :
  Uts46.idna_to_ascii Idna_Known.toy true C04_Uts46_Api.cfg_verify [233; 120] [233] = U32_c13.Panic 468
  /\ Uts46.idna_to_ascii Idna_Known.toy false C04_Uts46_Api.cfg_verify [233; 120] [233]
     = U32_c13.Ok [233; 120; 110; 45; 45; 120; 45; 57; 102; 97]
  /\ Uts46.idna_to_ascii Idna_Known.toy true C04_Uts46_Api.cfg_verify [233; 120] []
     = U32_c13.Ok [120; 110; 45; 45; 120; 45; 57; 102; 97].
Proof. exact C04_Uts46_Api.c04_13_witness. Qed.
Check C04_13_refuted :
  Uts46.idna_to_ascii Idna_Known.toy true C04_Uts46_Api.cfg_verify [233; 120] [233] = U32_c13.Panic 468
  /\ Uts46.idna_to_ascii Idna_Known.toy false C04_Uts46_Api.cfg_verify [233; 120] [233]
     = U32_c13.Ok [233; 120; 110; 45; 45; 120; 45; 57; 102; 97]
  /\ Uts46.idna_to_ascii Idna_Known.toy true C04_Uts46_Api.cfg_verify [233; 120] []
     = U32_c13.Ok [120; 110; 45; 45; 120; 45; 57; 102; 97].
Print Assumptions C04_13_refuted.

(* finding F-C11-2 (the class Known_C11 excluded by C04_no_panic_uts46_statement): to_user_interface("1a.xn--4db")
   with a never-Unicode policy fails debug_assert!(!had_errors) at uts46.rs:899 *)
Theorem C04_c11_2_refuted :
  Idna_Known.Known_C11 Idna_Known.toy false Idna_Known.W_C11_2 Uts46.DENY_EMPTY Uts46.HAllow = true
  /\ Uts46.to_user_interface Idna_Known.toy true Idna_Known.W_C11_2 Uts46.DENY_EMPTY Uts46.HAllow Uts46.never_unicode
     = Uts46.UIPanic 899
  /\ Uts46.to_user_interface Idna_Known.toy false Idna_Known.W_C11_2 Uts46.DENY_EMPTY Uts46.HAllow Uts46.never_unicode
     = Uts46.UI true Idna_Known.W_C11_2 false.
Proof. destruct Idna_Known.w_c11_2 as (H1 & _ & H3 & H4). exact (conj H1 (conj H4 H3)). Qed.
Check C04_c11_2_refuted :
  Idna_Known.Known_C11 Idna_Known.toy false Idna_Known.W_C11_2 Uts46.DENY_EMPTY Uts46.HAllow = true
  /\ Uts46.to_user_interface Idna_Known.toy true Idna_Known.W_C11_2 Uts46.DENY_EMPTY Uts46.HAllow Uts46.never_unicode
     = Uts46.UIPanic 899
  /\ Uts46.to_user_interface Idna_Known.toy false Idna_Known.W_C11_2 Uts46.DENY_EMPTY Uts46.HAllow Uts46.never_unicode
     = Uts46.UI true Idna_Known.W_C11_2 false.
Print Assumptions C04_c11_2_refuted.

(* Host::parse / Host::parse_opaque: every input, '['-led IPv6 literals included (C09_total) *)
Theorem C04_no_panic_host :
  (forall idna input, C09_Reject.no_panic (Host.host_parse_x idna input))
  /\ (forall input, C09_Reject.no_panic (Host.host_parse_opaque_x input)).
Proof. exact C09.C09_total. Qed.
Check C04_no_panic_host :
  (forall idna input, C09_Reject.no_panic (Host.host_parse_x idna input))
  /\ (forall input, C09_Reject.no_panic (Host.host_parse_opaque_x input)).
Print Assumptions C04_no_panic_host.

(* the earlier, weaker form (inputs that do not start with '['), kept under its own name *)
Theorem C04_no_panic_host_partial :
  (forall idna input, Host.starts_with 91 input = false -> C09_Reject.no_panic (Host.host_parse_x idna input))
  /\ (forall input, Host.starts_with 91 input = false -> C09_Reject.no_panic (Host.host_parse_opaque_x input)).
Proof. exact C09.C09_total_partial. Qed.
Check C04_no_panic_host_partial :
  (forall idna input, Host.starts_with 91 input = false -> C09_Reject.no_panic (Host.host_parse_x idna input))
  /\ (forall input, Host.starts_with 91 input = false -> C09_Reject.no_panic (Host.host_parse_opaque_x input)).
Print Assumptions C04_no_panic_host_partial.

(* Url accessors and Position slicing on a record satisfying wf_b, both configurations *)
Theorem C04_no_panic_accessors : forall dbg u, wf_b u = true ->
  (forall p, exists i, Setters.position_index dbg u p = Some i /\ i <= nlen (ser u))
  /\ (forall p q, (C03_WF.pos_rank p <= C03_WF.pos_rank q)%nat -> exists s, Setters.index_range dbg u p q = Some s)
  /\ (forall p, exists s t, Setters.index_to dbg u p = Some s /\ Setters.index_from dbg u p = Some t)
  /\ (exists sch un pw hs pth q f,
        scheme u = Some sch /\ username dbg u = Some un /\ password dbg u = Some pw /\ host_str u = Some hs
        /\ path u = Some pth /\ query dbg u = Some q /\ fragment dbg u = Some f).
Proof.
  intros dbg u H. split; [|split; [|split]].
  - intros p. exact (C03.C03_index dbg u p H).
  - exact (proj1 (C03.C03_slices dbg u H)).
  - intros p. destruct (proj1 (proj2 (C03.C03_slices dbg u H)) p) as (s & t & Hs & Ht & _). exists s, t. tauto.
  - destruct (C03.C03_concat dbg u H) as (sch & un & pw & hs & pth & q & f & H1 & H2 & H3 & H4 & H5 & H6 & H7 & _).
    exists sch, un, pw, hs, pth, q, f. tauto.
Qed.
Check C04_no_panic_accessors : forall dbg u, wf_b u = true ->
  (forall p, exists i, Setters.position_index dbg u p = Some i /\ i <= nlen (ser u))
  /\ (forall p q, (C03_WF.pos_rank p <= C03_WF.pos_rank q)%nat -> exists s, Setters.index_range dbg u p q = Some s)
  /\ (forall p, exists s t, Setters.index_to dbg u p = Some s /\ Setters.index_from dbg u p = Some t)
  /\ (exists sch un pw hs pth q f,
        scheme u = Some sch /\ username dbg u = Some un /\ password dbg u = Some pw /\ host_str u = Some hs
        /\ path u = Some pth /\ query dbg u = Some q /\ fragment dbg u = Some f).
Print Assumptions C04_no_panic_accessors.

(* Url setters on a well-formed record (wfh = wf_b + host text invariant), both configurations.
   set_host is not in the list: findings F-C04-1 and F-C04-3 (see C04_1_refuted, C04_3_refuted) *)
Theorem C04_no_panic_setters : forall dbg u, C06_Main.wfh u ->
  (forall f, exists u', Setters.set_fragment dbg u f = Some u')
  /\ (forall q, C06_Main.str_arg_ok q -> exists u', Setters.set_query dbg u q = Some u')
  /\ (forall p, C06_Main.port_arg_ok p -> exists r, Setters.set_port dbg u p = Some r)
  /\ (forall pw, exists r, Setters.set_password dbg u pw = Some r)
  /\ (forall un, exists r, Setters.set_username dbg u un = Some r)
  /\ (forall s, exists r, Setters.set_scheme dbg u s = Some r).
Proof. exact C06.C06_nopanic. Qed.
Check C04_no_panic_setters : forall dbg u, C06_Main.wfh u ->
  (forall f, exists u', Setters.set_fragment dbg u f = Some u')
  /\ (forall q, C06_Main.str_arg_ok q -> exists u', Setters.set_query dbg u q = Some u')
  /\ (forall p, C06_Main.port_arg_ok p -> exists r, Setters.set_port dbg u p = Some r)
  /\ (forall pw, exists r, Setters.set_password dbg u pw = Some r)
  /\ (forall un, exists r, Setters.set_username dbg u un = Some r)
  /\ (forall s, exists r, Setters.set_scheme dbg u s = Some r).
Print Assumptions C04_no_panic_setters.

(* the remaining mutators, on a record satisfying wf_b alone, ANY argument (no scalar-value hypothesis), any host
   functions, both configurations (Proofs/C04_SetPath.v, C04_SetHost.v):
   - set_path never panics;
   - a path_segments_mut session (any sequence of clear / pop_if_empty / pop / push / extend, then drop) panics
     exactly when debug assertions are on and psm_assert_fails u: the URL is not cannot-be-a-base, its scheme is
     special and the byte at path_start is not '/' (the debug_assert of PathSegmentsMut::new; wf_b allows such a
     record, the parser never produces one: C04_psm_refuted);
   - set_host panics exactly in the class of finding F-C04-1: debug assertions on, argument None, known_c04_1 u
     (has a host, not special-not-file, the path is empty and a '?' or '#' follows);
   - set_ip_host never panics.
   Findings F-C04-3 and F-C04-12 are not panics of a mutator on a wf_b record: the mutator returns a record
   outside wf_b and a LATER accessor panics (C04_3_refuted, C04_12_refuted). *)
Theorem C04_no_panic_setters2 : forall dbg hp hpo hd u, wf_b u = true ->
  (forall p, exists u', Setters.set_path dbg u p = Some u')
  /\ (forall ops, Setters.path_segments_session dbg u ops = None <-> dbg = true /\ C04_SetPath.psm_assert_fails u = true)
  /\ (forall h, Setters.set_host dbg hp hpo hd u h = None <-> dbg = true /\ h = None /\ C04_SetHost.known_c04_1 u = true)
  /\ (forall h, exists r, Setters.set_ip_host dbg hd u h = Some r)
  /\ (forall h op, exists u', Setters.set_host_internal dbg hd u h op = Some u').
Proof.
  intros dbg hp hpo hd u W.
  exact (conj (fun p => C04_SetPath.set_path_total dbg u p W)
        (conj (fun ops => C04_SetPath.session_panics_iff dbg u ops W)
        (conj (fun h => C04_SetHost.set_host_panics_iff dbg hp hpo hd u h W)
        (conj (fun h => C04_SetHost.set_ip_host_total dbg hp hpo hd u h W)
              (fun h op => C04_SetHost.set_host_internal_total dbg hp hpo hd u h op W))))).
Qed.
Check C04_no_panic_setters2 : forall dbg hp hpo hd u, wf_b u = true ->
  (forall p, exists u', Setters.set_path dbg u p = Some u')
  /\ (forall ops, Setters.path_segments_session dbg u ops = None <-> dbg = true /\ C04_SetPath.psm_assert_fails u = true)
  /\ (forall h, Setters.set_host dbg hp hpo hd u h = None <-> dbg = true /\ h = None /\ C04_SetHost.known_c04_1 u = true)
  /\ (forall h, exists r, Setters.set_ip_host dbg hd u h = Some r)
  /\ (forall h op, exists u', Setters.set_host_internal dbg hd u h op = Some u').
Print Assumptions C04_no_panic_setters2.

(* inside known_c04_1 the path is empty and a query or a fragment follows *)
Theorem C04_known_1_shape : forall u, wf_b u = true -> C04_SetHost.known_c04_1 u = true ->
  path_start u = C06_WFI.path_end u /\ (query_start u <> None \/ fragment_start u <> None).
Proof. exact C04_SetHost.known_c04_1_shape. Qed.
Check C04_known_1_shape : forall u, wf_b u = true -> C04_SetHost.known_c04_1 u = true ->
  path_start u = C06_WFI.path_end u /\ (query_start u <> None \/ fragment_start u <> None).
Print Assumptions C04_known_1_shape.

(* finding F-C04-1: "a://h?q".set_host(None) *)
Theorem C04_1_refuted :
  wf_b C04_SetHost.w_c04_1 = true /\ C04_SetHost.known_c04_1 C04_SetHost.w_c04_1 = true
  /\ Setters.set_host true C06_Host.hs_hp C06_Host.hs_hp C06_Host.hs_hd C04_SetHost.w_c04_1 None = None
  /\ Setters.set_host false C06_Host.hs_hp C06_Host.hs_hp C06_Host.hs_hd C04_SetHost.w_c04_1 None
     = Some (mkUrl [97; 58; 63; 113] 1 2 2 2 HI_None None 2 (Some 2) None, Setters.SOk).
Proof. exact C04_SetHost.c04_1_witness. Qed.
Check C04_1_refuted :
  wf_b C04_SetHost.w_c04_1 = true /\ C04_SetHost.known_c04_1 C04_SetHost.w_c04_1 = true
  /\ Setters.set_host true C06_Host.hs_hp C06_Host.hs_hp C06_Host.hs_hd C04_SetHost.w_c04_1 None = None
  /\ Setters.set_host false C06_Host.hs_hp C06_Host.hs_hp C06_Host.hs_hd C04_SetHost.w_c04_1 None
     = Some (mkUrl [97; 58; 63; 113] 1 2 2 2 HI_None None 2 (Some 2) None, Setters.SOk).
Print Assumptions C04_1_refuted.

(* finding F-C04-3: "a://h:80/".set_host(Some "") returns (no panic) the record "a://:80/", which is outside
   wf_b; password() on it panics in both configurations *)
Theorem C04_3_refuted :
  wf_b C06_Host.hs_w1 = true /\ C04_SetHost.known_c04_1 C06_Host.hs_w1 = false
  /\ exists u', Setters.set_host true C06_Host.hs_hp C06_Host.hs_hp C06_Host.hs_hd C06_Host.hs_w1 (Some []) = Some (u', Setters.SOk)
     /\ ser u' = [97; 58; 47; 47; 58; 56; 48; 47] /\ wf_b u' = false
     /\ password true u' = None /\ password false u' = None.
Proof. exact C04_SetHost.c04_3_witness. Qed.
Check C04_3_refuted :
  wf_b C06_Host.hs_w1 = true /\ C04_SetHost.known_c04_1 C06_Host.hs_w1 = false
  /\ exists u', Setters.set_host true C06_Host.hs_hp C06_Host.hs_hp C06_Host.hs_hd C06_Host.hs_w1 (Some []) = Some (u', Setters.SOk)
     /\ ser u' = [97; 58; 47; 47; 58; 56; 48; 47] /\ wf_b u' = false
     /\ password true u' = None /\ password false u' = None.
Print Assumptions C04_3_refuted.

(* finding F-C04-12: "a:/a/b".set_path("//") returns (no panic) the record "a://", which is outside wf_b;
   &u[BeforeUsername..AfterUsername] on it panics in both configurations *)
Theorem C04_12_refuted :
  wf_b C04_SetPath.w_c04_12 = true
  /\ exists u', Setters.set_path true C04_SetPath.w_c04_12 [47; 47] = Some u'
     /\ Setters.set_path false C04_SetPath.w_c04_12 [47; 47] = Some u'
     /\ ser u' = [97; 58; 47; 47] /\ wf_b u' = false
     /\ Setters.index_range true u' Setters.BeforeUsername Setters.AfterUsername = None
     /\ Setters.index_range false u' Setters.BeforeUsername Setters.AfterUsername = None.
Proof. exact C04_SetPath.c04_12_witness. Qed.
Check C04_12_refuted :
  wf_b C04_SetPath.w_c04_12 = true
  /\ exists u', Setters.set_path true C04_SetPath.w_c04_12 [47; 47] = Some u'
     /\ Setters.set_path false C04_SetPath.w_c04_12 [47; 47] = Some u'
     /\ ser u' = [97; 58; 47; 47] /\ wf_b u' = false
     /\ Setters.index_range true u' Setters.BeforeUsername Setters.AfterUsername = None
     /\ Setters.index_range false u' Setters.BeforeUsername Setters.AfterUsername = None.
Print Assumptions C04_12_refuted.

(* the record excluded by psm_assert_fails: "http://h" with an empty path satisfies wf_b *)
Theorem C04_psm_refuted :
  wf_b C04_SetPath.psm_w = true /\ C04_SetPath.psm_assert_fails C04_SetPath.psm_w = true
  /\ Setters.path_segments_session true C04_SetPath.psm_w [] = None
  /\ Setters.path_segments_session false C04_SetPath.psm_w [] = Some (C04_SetPath.psm_w, Setters.SOk).
Proof. exact C04_SetPath.psm_witness. Qed.
Check C04_psm_refuted :
  wf_b C04_SetPath.psm_w = true /\ C04_SetPath.psm_assert_fails C04_SetPath.psm_w = true
  /\ Setters.path_segments_session true C04_SetPath.psm_w [] = None
  /\ Setters.path_segments_session false C04_SetPath.psm_w [] = Some (C04_SetPath.psm_w, Setters.SOk).
Print Assumptions C04_psm_refuted.

(* ================================================================== 3. the URL parser *)
(* the class excluded by finding F-C04-7: the file scheme is involved (input scheme, or base scheme
   when the input has none) *)
Definition known_c04_7 (base : option url) (input : list N) : bool :=
  match parse_scheme CUrlParser (input_new_trim_c0 input) with
  | Some (sch, _) => st_is_file (scheme_type_of sch)
  | None => match base with Some b => list_eqb (b_scheme b) s_file | None => false end
  end.

(* full statement (not proved): with a well-formed base and outside the file class, parse_url reaches
   none of its panic sites, for any host functions and both configurations *)
Definition C04_parse_no_panic_statement : Prop :=
  forall dbg hp hpo hd ovr base input, usv_list input ->
    (match base with Some b => wf_b b = true | None => True end) ->
    known_c04_7 base input = false ->
    parse_url dbg hp hpo hd ovr base input <> PPanic.

(* proved: no base, and either no scheme at all or a non-special scheme not followed by "//"
   ("sch:/path?q#f", "sch:opaque?q#f"): pop_path's unwrap, finish_segment's debug_assert and slice,
   the assert!s of with_query_and_fragment and the panic! of parse_query_and_fragment are unreachable.
   A special case of C04_parse_no_base_no_panic (any input without base), kept under its own name. *)
Theorem C04_parse_no_panic_partial : forall dbg hp hpo hd ovr input, usv_list input ->
  match parse_scheme CUrlParser (input_new_trim_c0 input) with
  | None => parse_url dbg hp hpo hd ovr None input = PErr RelativeUrlWithoutBase
  | Some (sch, rem) =>
      scheme_type_of sch = STNotSpecial -> inp_split_prefix_str s_ss rem = None ->
      parse_url dbg hp hpo hd ovr None input <> PPanic
  end.
Proof.
  intros dbg hp hpo hd ovr input Hu.
  destruct (parse_scheme CUrlParser (input_new_trim_c0 input)) as [[sch rem]|] eqn:Es.
  - intros _ _. exact (C04_Chain.parse_no_base_no_panic dbg hp hpo hd ovr input).
  - unfold parse_url. rewrite Es. reflexivity.
Qed.
Check C04_parse_no_panic_partial : forall dbg hp hpo hd ovr input, usv_list input ->
  match parse_scheme CUrlParser (input_new_trim_c0 input) with
  | None => parse_url dbg hp hpo hd ovr None input = PErr RelativeUrlWithoutBase
  | Some (sch, rem) =>
      scheme_type_of sch = STNotSpecial -> inp_split_prefix_str s_ss rem = None ->
      parse_url dbg hp hpo hd ovr None input <> PPanic
  end.
Print Assumptions C04_parse_no_panic_partial.

(* the path state is total on the canonical shape  pre "/" seg "/" ... "/" cur  for ANY prefix (hence
   also behind an authority): it returns the shape again and stops at the first '?' / '#' *)
Theorem C04_path_loop_total : forall pre dbg l segs cur pend hh, usv_list l -> C02_PathL1.pend_ok pend ->
  forallb C02_Path.good_seg segs = true -> C02_Enc.clean T_PATH cur = true -> C02_Path.no_slash cur = true ->
  exists segs' last',
    parse_path_loop dbg CUrlParser STNotSpecial (nlen pre) l (C02_PathL1.Bs pre segs ++ cur)
                    (nlen (C02_PathL1.Bs pre segs)) pend hh
    = POk (C02_PathL1.Bs pre segs' ++ last', hh, C02_Parts.cbb_rest l)
    /\ forallb C02_Path.good_seg segs' = true /\ C02_Path.good_seg last' = true.
Proof. exact C04_Parse.loop_total. Qed.
Check C04_path_loop_total : forall pre dbg l segs cur pend hh, usv_list l -> C02_PathL1.pend_ok pend ->
  forallb C02_Path.good_seg segs = true -> C02_Enc.clean T_PATH cur = true -> C02_Path.no_slash cur = true ->
  exists segs' last',
    parse_path_loop dbg CUrlParser STNotSpecial (nlen pre) l (C02_PathL1.Bs pre segs ++ cur)
                    (nlen (C02_PathL1.Bs pre segs)) pend hh
    = POk (C02_PathL1.Bs pre segs' ++ last', hh, C02_Parts.cbb_rest l)
    /\ forallb C02_Path.good_seg segs' = true /\ C02_Path.good_seg last' = true.
Print Assumptions C04_path_loop_total.

(* the authority states: parse_userinfo's second pass never runs out of characters (its
   `next_utf8().unwrap()`: the count returned by the first pass is at most the number of characters the
   skipping iterator yields), and parse_host_and_port has no panic outcome - any scheme type, context
   and host functions *)
Theorem C04_no_panic_authority_states : forall hp hpo hd ctx st se ser l,
  parse_userinfo st ser l <> PPanic /\ parse_host_and_port hp hpo hd ctx st se ser l <> PPanic.
Proof.
  intros hp hpo hd ctx st se ser l.
  exact (conj (C04_Parse.parse_userinfo_no_panic st ser l) (C04_Parse.parse_host_and_port_no_panic hp hpo hd ctx st se ser l)).
Qed.
Check C04_no_panic_authority_states : forall hp hpo hd ctx st se ser l,
  parse_userinfo st ser l <> PPanic /\ parse_host_and_port hp hpo hd ctx st se ser l <> PPanic.
Print Assumptions C04_no_panic_authority_states.

(* proved (Proofs/C04_ParseTotal.v): the WHOLE domain of the full statement except for one point where the
   full statement is false (next theorem).  Every input - the scalar-value hypothesis is not needed -,
   with or without base, any scheme outside the file class known_c04_7, any host functions, both
   configurations: parse_url reaches none of its panic sites (pop_path's unwrap, the debug_assert! and the
   slice of the path state, the debug_assert!s of parse_with_scheme / parse_relative, the unwrap of
   parse_userinfo, the assert!s of with_query_and_fragment, the panic! of parse_query_and_fragment, the
   unwrap of cannot_be_a_base).  This covers: (a) non-special scheme followed by "//" (userinfo, host and
   port, path behind an authority), (b) the special non-file schemes ('\' as a separator, any number of
   leading slashes, default ports), (c) every relative reference (empty, fragment-only, query-only,
   scheme-relative, path-absolute, path-relative with pop_path / shorten_path; also "http:rel" against a
   base of the same special scheme) against a base b with base_ok b = true, i.e. wf_b b and, when the
   scheme of b is special, the byte behind "scheme:" is '/' (b is not cannot-be-a-base - true of every
   special URL the parser produces).  Still missing w.r.t. the intent of the full statement: only the file
   class (F-C04-7 is a real panic there). *)
Theorem C04_parse_no_panic_partial2 : forall dbg hp hpo hd ovr base input,
  (match base with Some b => C04_ParseTotal.base_ok b = true | None => True end) ->
  known_c04_7 base input = false ->
  parse_url dbg hp hpo hd ovr base input <> PPanic.
Proof.
  intros dbg hp hpo hd ovr base input Hb Hk. apply C04_ParseFile.parse_url_ok3; [exact Hb|].
  destruct (C04_ParseFile.known_c04_7b base input) eqn:E; [|reflexivity].
  apply C04_ParseFile.known_7b_file_involved in E. exact (eq_trans (eq_sym E) Hk).
Qed.
Check C04_parse_no_panic_partial2 : forall dbg hp hpo hd ovr base input,
  (match base with Some b => C04_ParseTotal.base_ok b = true | None => True end) ->
  known_c04_7 base input = false ->
  parse_url dbg hp hpo hd ovr base input <> PPanic.
Print Assumptions C04_parse_no_panic_partial2.

(* the full statement as written is FALSE: wf_b does not say that a special URL has an authority.  The
   record "http:x" (scheme_end 4, all other offsets 5, no host) satisfies wf_b; joining "http:y" with it
   reaches the debug assertion of parse_with_scheme (debug builds) and pop_path's unwrap (release
   builds), whatever the host functions.  The parser never produces such a record (special URLs always
   get "//"); it can only come from Url::deserialize_internal in a release build, which skips
   check_invariants.  base_ok is wf_b plus exactly the missing fact. *)
Theorem C04_parse_no_panic_statement_refuted :
  ~ C04_parse_no_panic_statement
  /\ (usv_list C04_ParseTotal.cbb_special_ref /\ wf_b C04_ParseTotal.cbb_special_base = true
      /\ known_c04_7 (Some C04_ParseTotal.cbb_special_base) C04_ParseTotal.cbb_special_ref = false
      /\ C04_ParseTotal.base_ok C04_ParseTotal.cbb_special_base = false
      /\ forall dbg hp hpo hd ovr,
           parse_url dbg hp hpo hd ovr (Some C04_ParseTotal.cbb_special_base) C04_ParseTotal.cbb_special_ref = PPanic).
Proof. exact (conj C04_ParseTotal.parse_statement_false C04_ParseTotal.cbb_special_witness). Qed.
Check C04_parse_no_panic_statement_refuted :
  ~ C04_parse_no_panic_statement
  /\ (usv_list C04_ParseTotal.cbb_special_ref /\ wf_b C04_ParseTotal.cbb_special_base = true
      /\ known_c04_7 (Some C04_ParseTotal.cbb_special_base) C04_ParseTotal.cbb_special_ref = false
      /\ C04_ParseTotal.base_ok C04_ParseTotal.cbb_special_base = false
      /\ forall dbg hp hpo hd ovr,
           parse_url dbg hp hpo hd ovr (Some C04_ParseTotal.cbb_special_base) C04_ParseTotal.cbb_special_ref = PPanic).
Print Assumptions C04_parse_no_panic_statement_refuted.

(* the invariant behind it: for every scheme type other than file, any input, any serialization whose
   byte in front of the current segment is '/' (seg_inv: path_start <= segment_start, ser[segment_start-1]
   = '/'), the path state returns, keeps the first k <= min(segment_start, path_start + 1) bytes, keeps
   has_host, and stops at the end or in front of '?' / '#' *)
Theorem C04_path_state_total : forall dbg st ps k, st_is_file st = false -> k <= ps + 1 ->
  forall l ser ss pend hh, C04_PathTotal.seg_inv ps k ser ss ->
  exists s' rem, parse_path_loop dbg CUrlParser st ps l ser ss pend hh = POk (s', hh, rem)
                 /\ C06_List.agree_pre k ser s' /\ C04_PathTotal.rem_ok rem.
Proof. intros dbg st ps k Hnf Hk l ser ss pend hh. exact (C04_PathFile.loop_nofile dbg st ps k Hk l ser ss pend hh Hnf). Qed.
Check C04_path_state_total : forall dbg st ps k, st_is_file st = false -> k <= ps + 1 ->
  forall l ser ss pend hh, C04_PathTotal.seg_inv ps k ser ss ->
  exists s' rem, parse_path_loop dbg CUrlParser st ps l ser ss pend hh = POk (s', hh, rem)
                 /\ C06_List.agree_pre k ser s' /\ C04_PathTotal.rem_ok rem.
Print Assumptions C04_path_state_total.

(* the file class, narrowed (Proofs/C04_PathFile.v, C04_ParseFile.v): known_c04_7b is the part of
   known_c04_7 in which there is a file base, the reference (after its optional "file:") starts with a
   path segment - not '/', '\', '?', '#', not a drive letter - and shorten_path leaves a base text that
   does not end in '/' (it refuses to remove a drive-letter-shaped last segment, or the base path is
   empty, or it panics on a cannot-be-a-base record): there the first segment starts behind a byte that is
   not '/' and a ".." fails the debug assertion (F-C04-7).  Everywhere else - file URLs without base, file
   host state, one leading separator with the base's drive letter or host, '?', '#', drive-letter
   references, and path-relative references against a base whose shortened path ends in '/' - parse_url
   reaches no panic site.  The drive-letter quirks are covered: the loop arm that moves segment_start into
   "C:/" (state bad_seg), the rewriting of "C|" into "C:", the refusals of pop_path / shorten_path.
   GAP: inside known_c04_7b nothing is proved (the recogniser does not look at the first segment, so it
   also contains harmless inputs such as "x" against file:///C:). *)
Theorem C04_parse_no_panic_partial3 : forall dbg hp hpo hd ovr base input,
  (match base with Some b => C04_ParseTotal.base_ok b = true | None => True end) ->
  C04_ParseFile.known_c04_7b base input = false ->
  parse_url dbg hp hpo hd ovr base input <> PPanic.
Proof. exact C04_ParseFile.parse_url_ok3. Qed.
Check C04_parse_no_panic_partial3 : forall dbg hp hpo hd ovr base input,
  (match base with Some b => C04_ParseTotal.base_ok b = true | None => True end) ->
  C04_ParseFile.known_c04_7b base input = false ->
  parse_url dbg hp hpo hd ovr base input <> PPanic.
Print Assumptions C04_parse_no_panic_partial3.

(* known_c04_7b is a sub-class of known_c04_7 (so partial3 implies partial2), and the path state is total
   for ANY scheme type from the two kinds of states seg_inv / bad_seg *)
Theorem C04_known_7b_narrower : forall base input,
  C04_ParseFile.known_c04_7b base input = true -> known_c04_7 base input = true.
Proof. exact C04_ParseFile.known_7b_file_involved. Qed.
Check C04_known_7b_narrower : forall base input,
  C04_ParseFile.known_c04_7b base input = true -> known_c04_7 base input = true.
Print Assumptions C04_known_7b_narrower.

Theorem C04_path_state_total_any : forall dbg st ps k, k <= ps + 1 ->
  forall l ser ss pend hh, C04_PathFile.path_inv ps k ser ss ->
  C04_PathFile.path_res st ps k ser (parse_path_loop dbg CUrlParser st ps l ser ss pend hh).
Proof. exact C04_PathFile.loop_any. Qed.
Check C04_path_state_total_any : forall dbg st ps k, k <= ps + 1 ->
  forall l ser ss pend hh, C04_PathFile.path_inv ps k ser ss ->
  C04_PathFile.path_res st ps k ser (parse_path_loop dbg CUrlParser st ps l ser ss pend hh).
Print Assumptions C04_path_state_total_any.

(* the path state in EVERY context (Parser, Setter, PathSegmentSetter): same invariant, same result *)
Theorem C04_path_state_total_ctx : forall dbg ctx st ps k, k <= ps + 1 ->
  forall l ser ss pend hh, C04_PathFile.path_inv ps k ser ss ->
  C04_PathFile.path_res st ps k ser (parse_path_loop dbg ctx st ps l ser ss pend hh).
Proof. exact C04_PathCtx.loop_ctx. Qed.
Check C04_path_state_total_ctx : forall dbg ctx st ps k, k <= ps + 1 ->
  forall l ser ss pend hh, C04_PathFile.path_inv ps k ser ss ->
  C04_PathFile.path_res st ps k ser (parse_path_loop dbg ctx st ps l ser ss pend hh).
Print Assumptions C04_path_state_total_ctx.

(* THE PARSER, EXACTLY (Proofs/C04_ParseFile7.v): for every input, with or without base (base_ok), any host
   functions: parse_url reaches a panic site if and only if debug assertions are on and (base, input) is in
   known_c04_7x - the exact class of finding F-C04-7: the file scheme is involved, there is a file base, the
   reference (after an optional "file:") is path-relative (first character not / \ ? #, no drive letter),
   shorten_path leaves a base text that does not end in '/' (file_rel_unsafe), the drive-letter arm of the path
   loop does not fire inside the first segment, and the percent-encoded first segment is a double-dot spelling
   ("..", ".%2e", "%2E.", "%2e%2E", ...).  In a build without debug assertions parse_url never panics.
   This closes the gap of C04_parse_no_panic_partial3 (known_c04_7x is a sub-class of known_c04_7b). *)
Theorem C04_parse_panic_iff : forall dbg hp hpo hd ovr base input,
  (match base with Some b => C04_ParseTotal.base_ok b = true | None => True end) ->
  (parse_url dbg hp hpo hd ovr base input = PPanic <-> dbg = true /\ C04_ParseFile7.known_c04_7x base input = true).
Proof. exact C04_ParseFile7.parse_url_panic_iff. Qed.
Check C04_parse_panic_iff : forall dbg hp hpo hd ovr base input,
  (match base with Some b => C04_ParseTotal.base_ok b = true | None => True end) ->
  (parse_url dbg hp hpo hd ovr base input = PPanic <-> dbg = true /\ C04_ParseFile7.known_c04_7x base input = true).
Print Assumptions C04_parse_panic_iff.

Theorem C04_known_7x_narrower : forall base input,
  C04_ParseFile7.known_c04_7x base input = true -> C04_ParseFile.known_c04_7b base input = true.
Proof. exact C04_ParseFile7.known_7x_7b. Qed.
Check C04_known_7x_narrower : forall base input,
  C04_ParseFile7.known_c04_7x base input = true -> C04_ParseFile.known_c04_7b base input = true.
Print Assumptions C04_known_7x_narrower.

(* finding F-C04-7: a file: base whose last segment looks like a drive letter, joined with "../x":
   the debug assertion of the path state fails (PPanic with debug assertions, a URL without) *)
Definition toy_hp (s : list N) : result host := Ok (HDomain s).
Definition toy_hd (h : host) : list N := match h with HDomain d => d | _ => [] end.
Definition w_c04_7_base : list N := [102;105;108;101;58;47;47;47;37;98;47;47;99;58].   (* file:///%b//c: *)
Definition w_c04_7_ref : list N := [46;46;47;120].                                    (* ../x *)
Theorem C04_7_refuted : exists b,
  parse_url true toy_hp toy_hp toy_hd None None w_c04_7_base = POk b /\ wf_b b = true
  /\ known_c04_7 (Some b) w_c04_7_ref = true
  /\ parse_url true toy_hp toy_hp toy_hd None (Some b) w_c04_7_ref = PPanic
  /\ parse_url false toy_hp toy_hp toy_hd None (Some b) w_c04_7_ref <> PPanic.
Proof. exists (mkUrl w_c04_7_base 4 7 7 7 HI_None None 7 None None). vm_compute. repeat split; discriminate. Qed.
Check C04_7_refuted : exists b,
  parse_url true toy_hp toy_hp toy_hd None None w_c04_7_base = POk b /\ wf_b b = true
  /\ known_c04_7 (Some b) w_c04_7_ref = true
  /\ parse_url true toy_hp toy_hp toy_hd None (Some b) w_c04_7_ref = PPanic
  /\ parse_url false toy_hp toy_hp toy_hd None (Some b) w_c04_7_ref <> PPanic.
Print Assumptions C04_7_refuted.

(* ================================================================== 4. UTF-8 at the unsafe sites *)
(* percent_encoding/src/lib.rs:96 *)
Theorem C04_utf8_pe_encode_byte : forall b, is_byte b ->
  ascii (site_pe_encode_byte b) /\ length (site_pe_encode_byte b) = 3%nat.
Proof. exact C04_Utf8.utf8_pe_encode_byte. Qed.
Check C04_utf8_pe_encode_byte : forall b, is_byte b ->
  ascii (site_pe_encode_byte b) /\ length (site_pe_encode_byte b) = 3%nat.
Print Assumptions C04_utf8_pe_encode_byte.

(* percent_encoding/src/lib.rs:163, :168 *)
Theorem C04_utf8_pe_unchanged : forall S bs c, site_pe_unchanged S bs = Some c ->
  ascii c /\ exists rest, pe_next S bs = Some (c, rest).
Proof. exact C04_Utf8.utf8_pe_unchanged. Qed.
Check C04_utf8_pe_unchanged : forall S bs c, site_pe_unchanged S bs = Some c ->
  ascii c /\ exists rest, pe_next S bs = Some (c, rest).
Print Assumptions C04_utf8_pe_unchanged.

(* percent_encoding/src/lib.rs:359 and form_urlencoded/src/lib.rs:422: the Vec reused as a String is
   valid UTF-8 and decodes to exactly the text from_utf8_lossy produced *)
Theorem C04_utf8_lossy_reuse : forall bytes s, site_lossy_reuse bytes = Some s ->
  s = bytes /\ utf8_valid s = true /\ utf8_strict s = inl (utf8_lossy bytes).
Proof. exact C04_Utf8.utf8_lossy_reuse. Qed.
Check C04_utf8_lossy_reuse : forall bytes s, site_lossy_reuse bytes = Some s ->
  s = bytes /\ utf8_valid s = true /\ utf8_strict s = inl (utf8_lossy bytes).
Print Assumptions C04_utf8_lossy_reuse.

(* form_urlencoded/src/lib.rs:159 *)
Theorem C04_utf8_bser_unchanged : forall bs c, site_bser_unchanged bs = Some c -> ascii c.
Proof. exact C04_Utf8.utf8_bser_unchanged. Qed.
Check C04_utf8_bser_unchanged : forall bs c, site_bser_unchanged bs = Some c -> ascii c.
Print Assumptions C04_utf8_bser_unchanged.

(* url/src/parser.rs:1843 fast_u16_to_str: ASCII digits, between 1 and 5 of them (the 5-byte buffer is
   never overrun, `index -= 1` never underflows) *)
Theorem C04_utf8_fast_u16_to_str : forall p, p < 65536 ->
  Forall (fun c => is_digit c = true) (site_fast_u16_to_str p) /\ ascii (site_fast_u16_to_str p)
  /\ (1 <= length (site_fast_u16_to_str p) <= 5)%nat.
Proof. exact C04_Utf8.utf8_fast_u16_to_str. Qed.
Check C04_utf8_fast_u16_to_str : forall p, p < 65536 ->
  Forall (fun c => is_digit c = true) (site_fast_u16_to_str p) /\ ascii (site_fast_u16_to_str p)
  /\ (1 <= length (site_fast_u16_to_str p) <= 5)%nat.
Print Assumptions C04_utf8_fast_u16_to_str.

(* every ASCII byte string is valid UTF-8 and decodes to itself (what turns `ascii` above into
   "valid UTF-8") *)
Theorem C04_utf8_ascii_valid : forall t, ascii t -> utf8_valid t = true /\ utf8_strict t = inl t.
Proof. intros t H. exact (conj (C04_Utf8.ascii_utf8_valid t H) (C04_Utf8.ascii_utf8_strict t H)). Qed.
Check C04_utf8_ascii_valid : forall t, ascii t -> utf8_valid t = true /\ utf8_strict t = inl t.
Print Assumptions C04_utf8_ascii_valid.

(* idna/src/uts46.rs:549, :669 (Passthrough => the input is reused as &str) and :834-1024 (slices of the
   input up to passthrough_up_to_extended, mixed_case).  Full statement (not proved): Passthrough
   implies an ASCII input.  Proved: the fastest tier, where the input is lower-case letters / dots. *)
Definition C04_utf8_uts46_statement : Prop :=
  forall A cfg ff p d deny hy k1 k2 w out1 out2, bytes d ->
    Uts46.process A cfg ff p d deny hy k1 k2 w = (Uts46.PPassthrough, out1, out2) -> ascii d.
Theorem C04_utf8_uts46_partial : forall A cfg ff p d deny hy k1 k2 w, bytes d -> Uts46.fast_tier d d = None ->
  Uts46.process A cfg ff p d deny hy k1 k2 w = (Uts46.PPassthrough, [], []) /\ ascii d.
Proof.
  intros A cfg ff p d deny hy k1 k2 w Hb H. destruct (C11.C11_passthrough_partial A cfg ff p d deny hy k1 k2 w Hb H) as (H1 & H2 & _).
  split; [exact H1|]. eapply Forall_impl; [|exact H2]. cbv beta. unfold Idna_Api.lower_or_dot, is_ascii. intros a [Ha|Ha]; [lia | rewrite Ha; reflexivity].
Qed.
Check C04_utf8_uts46_partial : forall A cfg ff p d deny hy k1 k2 w, bytes d -> Uts46.fast_tier d d = None ->
  Uts46.process A cfg ff p d deny hy k1 k2 w = (Uts46.PPassthrough, [], []) /\ ascii d.
Print Assumptions C04_utf8_uts46_partial.

(* beyond the fastest tier, for the fail-fast entry point: EVERY string Uts46::to_ascii returns - the borrowed input
   (Passthrough, uts46.rs:549: the from_utf8_unchecked site) or the owned output - is ASCII, hence valid UTF-8,
   for every byte input (invalid UTF-8 included), every deny list the API can build and every adapter with
   NvNoTrunc (normalize_validate never returns a proper prefix of its argument); from the C10 output theorem.
   Not in this theorem: the mark-errors mode (to_unicode / to_user_interface Passthrough), which C04_utf8_uts46
   adds (C04_utf8_uts46_statement). *)
Theorem C04_utf8_uts46_partial2 : forall A cfg d deny hy dns b r,
  Idna_C10_Inner.NvNoTrunc A -> bytes d -> Idna_Hyp.valid_deny deny ->
  Uts46.to_ascii A cfg d deny hy dns = U32_c13.Ok (b, r) ->
  Forall (fun c => c < 128) r /\ (b = true -> r = d).
Proof.
  intros A cfg d deny hy dns b r HN Hb Hv H. split.
  - exact (C04_Uts46_Api.to_ascii_returns_ascii A cfg d deny hy dns b r HN Hb Hv H).
  - intros ->. exact (Idna_Api.to_ascii_borrow A cfg d deny hy dns r H).
Qed.
Check C04_utf8_uts46_partial2 : forall A cfg d deny hy dns b r,
  Idna_C10_Inner.NvNoTrunc A -> bytes d -> Idna_Hyp.valid_deny deny ->
  Uts46.to_ascii A cfg d deny hy dns = U32_c13.Ok (b, r) ->
  Forall (fun c => c < 128) r /\ (b = true -> r = d).
Print Assumptions C04_utf8_uts46_partial2.

(* ================================================================== 5. cost *)
(* each twin computes the original function, and its step count is linear *)
Theorem C04_cost_percent_encoding : forall S bs,
  fst (decode_c bs) = decode bs /\ snd (decode_c bs) <= 3 * nlen bs
  /\ fst (pe_chunks_c S bs) = pe_chunks S bs /\ snd (pe_chunks_c S bs) <= 5 * nlen bs + 1.
Proof.
  intros S bs. exact (conj (C04_Cost.decode_c_result bs) (conj (C04_Cost.decode_c_linear bs)
        (conj (C04_Cost.pe_chunks_c_result S bs) (C04_Cost.pe_chunks_c_linear S bs)))).
Qed.
Check C04_cost_percent_encoding : forall S bs,
  fst (decode_c bs) = decode bs /\ snd (decode_c bs) <= 3 * nlen bs
  /\ fst (pe_chunks_c S bs) = pe_chunks S bs /\ snd (pe_chunks_c S bs) <= 5 * nlen bs + 1.
Print Assumptions C04_cost_percent_encoding.

Theorem C04_cost_form_urlencoded : forall bs,
  fst (bser_chunks_c bs) = FormUrlencoded.bser_chunks bs /\ snd (bser_chunks_c bs) <= 5 * nlen bs + 1
  /\ fst (parse_next_c bs) = FormUrlencoded.parse_next bs
  /\ snd (parse_next_c bs) <= 5 * (nlen bs - nlen (C04_Cost.pnext_rest (FormUrlencoded.parse_next bs))) + 2.
Proof.
  intros bs. exact (conj (C04_Cost.bser_chunks_c_result bs) (conj (C04_Cost.bser_chunks_c_linear bs)
        (conj (C04_Cost.parse_next_c_result bs) (C04_Cost.parse_next_c_linear bs)))).
Qed.
Check C04_cost_form_urlencoded : forall bs,
  fst (bser_chunks_c bs) = FormUrlencoded.bser_chunks bs /\ snd (bser_chunks_c bs) <= 5 * nlen bs + 1
  /\ fst (parse_next_c bs) = FormUrlencoded.parse_next bs
  /\ snd (parse_next_c bs) <= 5 * (nlen bs - nlen (C04_Cost.pnext_rest (FormUrlencoded.parse_next bs))) + 2.
Print Assumptions C04_cost_form_urlencoded.

Theorem C04_cost_base64 : forall (W E : Type) (write : W -> list N -> W * option E) d input,
  fst (feed_c write d input) = Base64.feed write d input /\ snd (feed_c write d input) <= nlen input.
Proof. intros W E write d input. exact (C04_Cost.feed_c_spec write input d). Qed.
Check C04_cost_base64 : forall (W E : Type) (write : W -> list N -> W * option E) d input,
  fst (feed_c write d input) = Base64.feed write d input /\ snd (feed_c write d input) <= nlen input.
Print Assumptions C04_cost_base64.

(* fragment, query (any encoder that at most quadruples the length, e.g. UTF-8) and opaque path states *)
Theorem C04_cost_parser_tail : forall set enc iup ctx ser l, C04_Cost.enc_ok enc -> usv_list l ->
  fst (parse_fragment_loop_c ser [] l) = parse_fragment ser l
  /\ snd (parse_fragment_loop_c ser [] l) <= 13 * nlen l + 1
  /\ fst (parse_query_loop_c set enc iup ser [] l) = parse_query_loop set enc iup ser [] l
  /\ snd (parse_query_loop_c set enc iup ser [] l) <= 13 * nlen l + 1
  /\ fst (parse_cannot_be_a_base_path_c ctx ser l) = parse_cannot_be_a_base_path ctx ser l
  /\ snd (parse_cannot_be_a_base_path_c ctx ser l) <= 13 * nlen l + 1.
Proof.
  intros set enc iup ctx ser l He Hl.
  destruct (C04_Cost.parse_fragment_c_linear ser l Hl) as [A1 A2].
  destruct (C04_Cost.parse_query_c_linear set enc iup ser l He Hl) as [B1 B2].
  destruct (C04_Cost.parse_cbb_c_linear ctx ser l Hl) as [C1 C2]. tauto.
Qed.
Check C04_cost_parser_tail : forall set enc iup ctx ser l, C04_Cost.enc_ok enc -> usv_list l ->
  fst (parse_fragment_loop_c ser [] l) = parse_fragment ser l
  /\ snd (parse_fragment_loop_c ser [] l) <= 13 * nlen l + 1
  /\ fst (parse_query_loop_c set enc iup ser [] l) = parse_query_loop set enc iup ser [] l
  /\ snd (parse_query_loop_c set enc iup ser [] l) <= 13 * nlen l + 1
  /\ fst (parse_cannot_be_a_base_path_c ctx ser l) = parse_cannot_be_a_base_path ctx ser l
  /\ snd (parse_cannot_be_a_base_path_c ctx ser l) <= 13 * nlen l + 1.
Print Assumptions C04_cost_parser_tail.

(* the path state: the twin computes parse_path / PathSegmentsMut::extend ... *)
Theorem C04_cost_path_result : forall dbg ctx st hh ps ser l segs,
  fst (parse_path_c dbg ctx st hh ps ser l) = parse_path dbg ctx st hh ps ser l
  /\ fst (psm_extend_loop_c dbg st ps ser segs) = Setters.psm_extend_loop dbg st ps ser segs.
Proof.
  intros dbg ctx st hh ps ser l segs.
  exact (conj (C04_Cost.parse_path_c_result dbg ctx st hh ps ser l) (C04_Cost.psm_extend_loop_c_result dbg st ps segs ser)).
Qed.
Check C04_cost_path_result : forall dbg ctx st hh ps ser l segs,
  fst (parse_path_c dbg ctx st hh ps ser l) = parse_path dbg ctx st hh ps ser l
  /\ fst (psm_extend_loop_c dbg st ps ser segs) = Setters.psm_extend_loop dbg st ps ser segs.
Print Assumptions C04_cost_path_result.

(* ... and is NOT linear.  Full statement (false on the pinned code): a linear bound in the length of
   the serialization so far plus the input. *)
Definition C04_cost_path_statement : Prop :=
  exists a b, forall dbg ctx st ps l ser ss pend hh, usv_list l ->
    snd (parse_path_loop_c dbg ctx st ps l ser ss pend hh) <= a * (nlen ser + nlen pend + nlen l) + b.
(* finding F-C04-8: m ".." segments at the root of the path behind a '/'-free prefix of length L cost
   at least m * (L + 1) steps (last_slash_can_be_removed searches the whole serialization) ... *)
Theorem C04_8_dotdots_cost : forall pre dbg, C02_PathL1.no_byte 47 pre = true -> forall m hh,
  N.of_nat m * (nlen pre + 1)
  <= snd (parse_path_loop_c dbg CUrlParser STNotSpecial (nlen pre) (C04_CostPath.dotdots m) (pre ++ [47])
                            (nlen (pre ++ [47])) [] hh).
Proof. exact C04_CostPath.dotdots_cost. Qed.
Check C04_8_dotdots_cost : forall pre dbg, C02_PathL1.no_byte 47 pre = true -> forall m hh,
  N.of_nat m * (nlen pre + 1)
  <= snd (parse_path_loop_c dbg CUrlParser STNotSpecial (nlen pre) (C04_CostPath.dotdots m) (pre ++ [47])
                            (nlen (pre ++ [47])) [] hh).
Print Assumptions C04_8_dotdots_cost.
(* ... hence no linear bound holds *)
Theorem C04_8_refuted : forall a b : N, exists pre l dbg hh, usv_list l /\
  a * (nlen (pre ++ [47]) + nlen l) + b
  < snd (parse_path_loop_c dbg CUrlParser STNotSpecial (nlen pre) l (pre ++ [47]) (nlen (pre ++ [47])) [] hh).
Proof. exact C04_CostPath.path_cost_not_linear. Qed.
Check C04_8_refuted : forall a b : N, exists pre l dbg hh, usv_list l /\
  a * (nlen (pre ++ [47]) + nlen l) + b
  < snd (parse_path_loop_c dbg CUrlParser STNotSpecial (nlen pre) l (pre ++ [47]) (nlen (pre ++ [47])) [] hh).
Print Assumptions C04_8_refuted.

(* finding F-C04-6: n calls of push("a") on file:/// cost at least n^2 steps (the file branch of
   parse_path copies the whole path), on http://h/ at most 14 n + 1.  The statement for all n is the
   Definition below (C04_6_quadratic proves it); here n = 50, 100, 200, instances of the exact costs
   2 n^2 + 14 n + 1 and 10 n + 1 (Proofs/C04_CostPath.v: pushes_file_cost, pushes_http_cost). *)
Definition C04_6_quadratic_statement : Prop :=
  forall n, N.of_nat n * N.of_nat n <= C04_CostPath.pushes_cost STFile 7 C04_CostPath.s_file_root n.
Theorem C04_6_refuted :
  (50 * 50 <= C04_CostPath.pushes_cost STFile 7 C04_CostPath.s_file_root 50
   /\ 100 * 100 <= C04_CostPath.pushes_cost STFile 7 C04_CostPath.s_file_root 100
   /\ 200 * 200 <= C04_CostPath.pushes_cost STFile 7 C04_CostPath.s_file_root 200
   /\ 3 * C04_CostPath.pushes_cost STFile 7 C04_CostPath.s_file_root 100
      <= C04_CostPath.pushes_cost STFile 7 C04_CostPath.s_file_root 200)
  /\ (C04_CostPath.pushes_cost STSpecialNotFile 8 C04_CostPath.s_http_root 50 <= 14 * 50 + 1
      /\ C04_CostPath.pushes_cost STSpecialNotFile 8 C04_CostPath.s_http_root 100 <= 14 * 100 + 1
      /\ C04_CostPath.pushes_cost STSpecialNotFile 8 C04_CostPath.s_http_root 200 <= 14 * 200 + 1).
Proof. rewrite !C04_CostPath.pushes_file_cost, !C04_CostPath.pushes_http_cost. repeat split; lia. Qed.
Check C04_6_refuted :
  (50 * 50 <= C04_CostPath.pushes_cost STFile 7 C04_CostPath.s_file_root 50
   /\ 100 * 100 <= C04_CostPath.pushes_cost STFile 7 C04_CostPath.s_file_root 100
   /\ 200 * 200 <= C04_CostPath.pushes_cost STFile 7 C04_CostPath.s_file_root 200
   /\ 3 * C04_CostPath.pushes_cost STFile 7 C04_CostPath.s_file_root 100
      <= C04_CostPath.pushes_cost STFile 7 C04_CostPath.s_file_root 200)
  /\ (C04_CostPath.pushes_cost STSpecialNotFile 8 C04_CostPath.s_http_root 50 <= 14 * 50 + 1
      /\ C04_CostPath.pushes_cost STSpecialNotFile 8 C04_CostPath.s_http_root 100 <= 14 * 100 + 1
      /\ C04_CostPath.pushes_cost STSpecialNotFile 8 C04_CostPath.s_http_root 200 <= 14 * 200 + 1).
Print Assumptions C04_6_refuted.

(* ================================================================== 6. the Punycode cap *)
(* the caps are the documented 1000 / 2000; the unchecked internal encoder equals the checked one up
   to the cap; and check_label lets a non-ASCII label above the cap through only in mark-errors mode and
   with the error flag set (so the quadratic encoder never sees it; in fail-fast mode - to_ascii - it
   is rejected).  The public punycode::{encode, decode} functions have NO cap: finding F-C04-10. *)
Theorem C04_punycode_cap :
  T_IDNA_DECODE_MAX = 2000 /\ T_IDNA_ENCODE_MAX = 1000
  /\ (forall cfg s, usv_list s -> (length s <= 1000)%nat ->
        Punycode.encode_internal cfg s = Punycode.encode cfg s)
  /\ (forall A cfg ff hy lab he f1 f2 lab' he',
        Uts46.check_label A cfg ff hy lab he f1 f2 = Uts46.SOk (lab', he') ->
        Uts46.is_ascii_l lab' = false -> Uts46.PUNYCODE_ENCODE_MAX_INPUT_LENGTH < Uts46.len lab' ->
        ff = false /\ he' = true).
Proof.
  destruct C10.C10_limits as (_ & _ & H1 & H2). split; [exact H1|]. split; [exact H2|]. split.
  - intros cfg s Hu Hl. exact (proj1 (C13.C13_internal cfg s Hu Hl)).
  - exact C04_CostIdna.check_label_cap.
Qed.
Check C04_punycode_cap :
  T_IDNA_DECODE_MAX = 2000 /\ T_IDNA_ENCODE_MAX = 1000
  /\ (forall cfg s, usv_list s -> (length s <= 1000)%nat ->
        Punycode.encode_internal cfg s = Punycode.encode cfg s)
  /\ (forall A cfg ff hy lab he f1 f2 lab' he',
        Uts46.check_label A cfg ff hy lab he f1 f2 = Uts46.SOk (lab', he') ->
        Uts46.is_ascii_l lab' = false -> Uts46.PUNYCODE_ENCODE_MAX_INPUT_LENGTH < Uts46.len lab' ->
        ff = false /\ he' = true).
Print Assumptions C04_punycode_cap.

(* ================================================================== non-vacuity *)
Example C04_premises_hold :
  (* a non-special URL with a path goes through the class of C04_parse_no_panic_partial *)
  parse_url true toy_hp toy_hp toy_hd None None [97;58;47;98;47;46;46;47;99;63;113;35;102]
  = POk (mkUrl [97;58;47;99;63;113;35;102] 1 2 2 2 HI_None None 2 (Some 4) (Some 6))
  /\ site_pe_unchanged T_PATH [97; 98; 32; 99] = Some [97; 98]
  /\ site_lossy_reuse [195; 169] = Some [195; 169] /\ site_lossy_reuse [195] = None
  /\ site_fast_u16_to_str 65535 = [54; 53; 53; 51; 53]
  /\ decode_c [37; 52; 49; 37; 37; 122] = ([65; 37; 37; 122], 8)
  /\ snd (parse_path_loop_c true CUrlParser STNotSpecial 2 (C04_CostPath.dotdots 3) [97; 58; 47] 3 [] false) = 49.
Proof. vm_compute. repeat split; reflexivity. Qed.

(* the hypotheses of C04_parse_no_panic_partial2 hold of a parsed special base and a "../x" reference (and
   of a non-special URL with authority without base); the invariant of C04_path_state_total holds of the
   serialization "a://h/" with the segment behind the last '/' *)
Example C04_partial2_premises_hold :
  (exists b, parse_url true toy_hp toy_hp toy_hd None None [104;116;116;112;58;47;47;104;47;97;47;98;63;113] = POk b
             /\ C04_ParseTotal.base_ok b = true /\ known_c04_7 (Some b) w_c04_7_ref = false
             /\ parse_url true toy_hp toy_hp toy_hd None (Some b) w_c04_7_ref
                = POk (mkUrl [104;116;116;112;58;47;47;104;47;120] 4 7 7 8 HI_Domain None 8 None None))
  /\ known_c04_7 None [97;58;47;47;117;64;104;58;56;47;46;46;47;112] = false
  /\ C04_PathTotal.seg_inv 5 6 [97;58;47;47;104;47] 6.
Proof.
  split; [exists (mkUrl [104;116;116;112;58;47;47;104;47;97;47;98;63;113] 4 7 7 8 HI_Domain None 8 (Some 12) None);
          vm_compute; repeat split; reflexivity|].
  split; [vm_compute; reflexivity|]. unfold C04_PathTotal.seg_inv. vm_compute. repeat split; try discriminate; reflexivity.
Qed.

(* C04_parse_no_panic_partial3: a parsed file base joined with "../x" is outside known_c04_7b (and parses);
   the base of finding F-C04-7 joined with the same reference is inside; the same text parsed without a
   base is outside *)
Example C04_partial3_premises_hold :
  let fb := mkUrl [102;105;108;101;58;47;47;47;97;47;98] 4 7 7 7 HI_None None 7 None None in
  let b7 := mkUrl w_c04_7_base 4 7 7 7 HI_None None 7 None None in
  parse_url true toy_hp toy_hp toy_hd None None [102;105;108;101;58;47;47;47;97;47;98] = POk fb
  /\ C04_ParseTotal.base_ok fb = true /\ C04_ParseFile.known_c04_7b (Some fb) w_c04_7_ref = false
  /\ parse_url true toy_hp toy_hp toy_hd None (Some fb) w_c04_7_ref
     = POk (mkUrl [102;105;108;101;58;47;47;47;120] 4 7 7 7 HI_None None 7 None None)
  /\ C04_ParseTotal.base_ok b7 = true /\ C04_ParseFile.known_c04_7b (Some b7) w_c04_7_ref = true
  /\ C04_ParseFile.known_c04_7b None (w_c04_7_base ++ [47] ++ w_c04_7_ref) = false
  /\ C04_PathFile.path_inv 7 7 [102;105;108;101;58;47;47;47;67;58;47;120] 9.
Proof.
  cbv zeta. repeat (split; [vm_compute; reflexivity|]).
  right. unfold C04_PathFile.bad_seg. split; [lia|]. split; [lia|]. split; [vm_compute; discriminate|].
  exists 58. repeat split; try discriminate; reflexivity.
Qed.

(* C04_parse_panic_iff: the witness of F-C04-7 and its "%2E." spelling (also behind "file:") are inside known_c04_7x;
   a harmless first segment against the same base, and "../x" against file:///C: (the drive-letter arm fires),
   are outside known_c04_7x although inside known_c04_7b *)
Example C04_panic_iff_premises_hold :
  let b7 := mkUrl w_c04_7_base 4 7 7 7 HI_None None 7 None None in
  let bC := mkUrl [102;105;108;101;58;47;47;47;67;58] 4 7 7 7 HI_None None 7 None None in
  C04_ParseTotal.base_ok b7 = true /\ C04_ParseTotal.base_ok bC = true
  /\ C04_ParseFile7.known_c04_7x (Some b7) w_c04_7_ref = true
  /\ C04_ParseFile7.known_c04_7x (Some b7) [37;50;69;46] = true
  /\ C04_ParseFile7.known_c04_7x (Some b7) [102;105;108;101;58;46;46] = true
  /\ C04_ParseFile7.known_c04_7x (Some b7) [120] = false /\ C04_ParseFile.known_c04_7b (Some b7) [120] = true
  /\ C04_ParseFile7.known_c04_7x (Some bC) w_c04_7_ref = false /\ C04_ParseFile.known_c04_7b (Some bC) w_c04_7_ref = true
  /\ parse_url true toy_hp toy_hp toy_hd None (Some bC) w_c04_7_ref
     = POk (mkUrl [102;105;108;101;58;47;47;47;67;58;47;120] 4 7 7 7 HI_None None 7 None None).
Proof. cbv zeta. vm_compute. repeat split; reflexivity. Qed.

(* C04_no_panic_setters2: a parsed URL with query, an editing session on it, and set_host(None) outside known_c04_1 *)
Example C04_setters2_premises_hold :
  let u := mkUrl [104;116;116;112;58;47;47;104;47;97;47;98;63;113] 4 7 7 8 HI_Domain None 8 (Some 12) None in
  wf_b u = true /\ C04_SetPath.psm_assert_fails u = false /\ C04_SetHost.known_c04_1 u = false
  /\ Setters.path_segments_session true u [Setters.PPop; Setters.PPush [46; 46]; Setters.PPush [99; 47; 63]; Setters.PExtend [[100]; []]]
     = Some (mkUrl [104;116;116;112;58;47;47;104;47;97;47;99;37;50;70;37;51;70;47;100;47;63;113] 4 7 7 8 HI_Domain None 8 (Some 21) None,
             Setters.SOk)
  /\ Setters.set_path true u [46;46;47;120;63] = Some (mkUrl [104;116;116;112;58;47;47;104;47;120;37;51;70;63;113] 4 7 7 8 HI_Domain None 8 (Some 13) None).
Proof. cbv zeta. vm_compute. repeat split; reflexivity. Qed.

(* C04_no_panic_uts46_partial2 / C04_utf8_uts46_partial2: the toy adapter of Idna_Known (identity normalizers on the
   witness inputs) meets NvNoTrunc; a mixed input goes through the whole pipeline without panic *)
Example C04_uts46_premises_hold :
  Idna_C10_Inner.NvNoTrunc Idna_Known.toy
  /\ Uts46.to_ascii Idna_Known.toy true [98; 195; 188; 99; 104; 101; 114; 46; 100; 101] Uts46.DENY_EMPTY Uts46.HAllow Uts46.DIgnore
     = U32_c13.Ok (false, [120; 110; 45; 45; 98; 99; 104; 101; 114; 45; 107; 118; 97; 46; 100; 101]).
Proof. split; [exact Idna_C10_Walk.toy_notrunc | vm_compute; reflexivity]. Qed.

(* ===== uts46 output walks (task idna3) ===== *)
From RU Require Proofs.Idna_WalkFun Proofs.Idna_WalkInv Proofs.Idna_WalkApi Proofs.Idna_WalkNoPanic Proofs.Idna_WalkEnc Proofs.Idna_WalkDepr.

(* idna/src/uts46.rs:549 / :669 - the from_utf8_unchecked sites behind Passthrough.  C04_utf8_uts46_statement IN FULL:
   in every mode (fail-fast or mark-errors, every label-display policy, any sinks), for every byte input (invalid
   UTF-8 included), every deny list / hyphen mode and EVERY adapter (no premise), Passthrough is returned only for
   an ASCII input; hence the &str handed back is valid UTF-8 (C04_utf8_ascii_valid). *)
Theorem C04_utf8_uts46 : C04_utf8_uts46_statement.
Proof. exact Idna_WalkApi.passthrough_ascii_input. Qed.
Check C04_utf8_uts46 : forall A cfg ff p d deny hy k1 k2 w out1 out2, bytes d ->
  Uts46.process A cfg ff p d deny hy k1 k2 w = (Uts46.PPassthrough, out1, out2) -> ascii d.
Print Assumptions C04_utf8_uts46.

(* every string Uts46::to_ascii returns is ASCII - as C04_utf8_uts46_partial2, now for EVERY adapter and every deny
   list value (the premises NvNoTrunc and valid_deny are gone): from the functional description of the first walk *)
Theorem C04_utf8_uts46_to_ascii : forall A cfg d deny hy dns b r, bytes d ->
  Uts46.to_ascii A cfg d deny hy dns = U32_c13.Ok (b, r) -> ascii r /\ (b = true -> r = d).
Proof.
  intros A cfg d deny hy dns b r Hb H. split.
  - exact (Idna_WalkNoPanic.to_ascii_returns_ascii_all A cfg d deny hy dns b r Hb H).
  - intros ->. exact (Idna_Api.to_ascii_borrow A cfg d deny hy dns r H).
Qed.
Check C04_utf8_uts46_to_ascii : forall A cfg d deny hy dns b r, bytes d ->
  Uts46.to_ascii A cfg d deny hy dns = U32_c13.Ok (b, r) -> ascii r /\ (b = true -> r = d).
Print Assumptions C04_utf8_uts46_to_ascii.

(* C04_no_panic_uts46_statement with the RIGHT adapter premises.  The statement as first written assumes AdapterOK,
   which is not enough (next theorem); what is needed is AdapterNP (no normalizer output is U+200F or >= 2^32; sampled
   by the harness) and AdapterUSV (the normalizers return Unicode scalar values: true by type, they yield `char`s;
   sampled by the harness as `adapterusv`). *)
Definition C04_no_panic_uts46_statement2 : Prop :=
  forall A cfg d deny hy dns p, C04_Uts46_Inner.AdapterNP A -> Idna_WalkEnc.AdapterUSV A -> bytes d ->
    (forall site, Uts46.to_ascii A cfg d deny hy dns <> U32_c13.Panic site)
    /\ (Idna_Known.Known_C11 A cfg d deny hy = false ->
        forall site, Uts46.to_user_interface A cfg d deny hy p <> Uts46.UIPanic site).

(* IN FULL: Uts46::to_ascii never panics (in fail-fast mode Known_C11 is irrelevant), and outside the exact class
   Known_C11 of finding F-C11-2 to_user_interface / to_unicode never panic - for every byte input, every deny list
   value, hyphen mode, DNS-length mode and label-display policy, with and without debug assertions.  Covers
   process_inner (C04_no_panic_uts46_partial2), the debug assertions 782 / 789, every site of the two output walks
   (805, 810, 813, 830, 844, 852, 885, 899, 928, 933, 949, 992), the unreachable!() behind the Punycode encoder (445:
   every label that is encoded is at most 1000 scalar values long by the cap of check_label, C13_internal), to_ascii's
   debug assertion 468 (the checked text is ASCII) and the unreachable SinkError arms 569 / 674. *)
Theorem C04_no_panic_uts46 : C04_no_panic_uts46_statement2.
Proof. intros A cfg d deny hy dns p HN HU Hb. exact (Idna_WalkEnc.uts46_no_panic A cfg d deny hy dns p HN HU Hb). Qed.
Check C04_no_panic_uts46 : forall A cfg d deny hy dns p, C04_Uts46_Inner.AdapterNP A -> Idna_WalkEnc.AdapterUSV A -> bytes d ->
    (forall site, Uts46.to_ascii A cfg d deny hy dns <> U32_c13.Panic site)
    /\ (Idna_Known.Known_C11 A cfg d deny hy = false ->
        forall site, Uts46.to_user_interface A cfg d deny hy p <> Uts46.UIPanic site).
Print Assumptions C04_no_panic_uts46.

(* the same for Uts46::process itself with infallible sinks (both error modes, with or without ASCII sink): it ends in
   Passthrough, WroteToSink or ValidityError *)
Theorem C04_no_panic_uts46_process : forall A cfg ff p d deny hy w,
  C04_Uts46_Inner.AdapterNP A -> Idna_WalkEnc.AdapterUSV A -> bytes d ->
  (ff = false -> Idna_Known.Known_C11 A cfg d deny hy = false) ->
  match fst (fst (Uts46.process A cfg ff p d deny hy None None w)) with
  | Uts46.PPanic _ | Uts46.PSinkError => False | _ => True end.
Proof. exact Idna_WalkEnc.uts46_process_no_panic. Qed.
Check C04_no_panic_uts46_process : forall A cfg ff p d deny hy w,
  C04_Uts46_Inner.AdapterNP A -> Idna_WalkEnc.AdapterUSV A -> bytes d ->
  (ff = false -> Idna_Known.Known_C11 A cfg d deny hy = false) ->
  match fst (fst (Uts46.process A cfg ff p d deny hy None None w)) with
  | Uts46.PPanic _ | Uts46.PSinkError => False | _ => True end.
Print Assumptions C04_no_panic_uts46_process.

(* the statement as first written (premise AdapterOK) is FALSE of the model: the adapter that lower-cases ASCII
   letters and is the identity otherwise meets every field of AdapterOK, and to_ascii("U+200F") fails
   debug_assert_ne!(c, RLM) in is_bidi (uts46.rs:1650).  Not a defect of the crate: the real idna_adapter maps U+200F
   to U+FFFD (AdapterNP, sampled). *)
Theorem C04_no_panic_uts46_statement_refuted : ~ C04_no_panic_uts46_statement.
Proof.
  intros H. destruct Idna_WalkEnc.lowid_panics as [Hk Hp].
  assert (Hb : bytes [226; 128; 143]) by (repeat constructor; unfold is_byte; lia).
  destruct (H Idna_WalkEnc.lowid true [226; 128; 143] Uts46.DENY_EMPTY Uts46.HAllow Uts46.DIgnore Uts46.never_unicode
              Idna_WalkEnc.lowid_ok Hb Hk) as [H1 _].
  exact (H1 1650 Hp).
Qed.
Check C04_no_panic_uts46_statement_refuted : ~ C04_no_panic_uts46_statement.
Print Assumptions C04_no_panic_uts46_statement_refuted.

(* finding F-C04-13, decided: the deprecated Idna::to_ascii(domain, out) (deprecated.rs) panics EXACTLY when debug
   assertions are on, verify_dns_length is configured, the processing wrote its output (the name is not passed
   through) and the text already in `out` is not ASCII - for every &str domain, every configuration, every `out`
   (C04_13_exact without its premise on process; no other panic site of the wrapper or of process is reachable) *)
Theorem C04_13_panic_iff : forall A cfg c domain out,
  C04_Uts46_Inner.AdapterNP A -> Idna_WalkEnc.AdapterUSV A -> usv_list domain ->
  (U32_c13.is_panic (Uts46.idna_to_ascii A cfg c domain out) = true <->
   cfg = true /\ Uts46.cfg_verify_dns_length c = true /\ Uts46.is_ascii_l out = false /\
   exists s x, Uts46.process A cfg true Uts46.never_unicode
                 (utf8_encode (Uts46.map_transitional domain (Uts46.transitional_processing c)))
                 (Uts46.config_deny_list c) (Uts46.config_hyphens c) None None false = (Uts46.PWroteToSink, s, x)).
Proof. intros A cfg c domain out HN HU Hd. exact (Idna_WalkDepr.idna_to_ascii_panic_iff A cfg HN HU c domain out Hd). Qed.
Check C04_13_panic_iff : forall A cfg c domain out,
  C04_Uts46_Inner.AdapterNP A -> Idna_WalkEnc.AdapterUSV A -> usv_list domain ->
  (U32_c13.is_panic (Uts46.idna_to_ascii A cfg c domain out) = true <->
   cfg = true /\ Uts46.cfg_verify_dns_length c = true /\ Uts46.is_ascii_l out = false /\
   exists s x, Uts46.process A cfg true Uts46.never_unicode
                 (utf8_encode (Uts46.map_transitional domain (Uts46.transitional_processing c)))
                 (Uts46.config_deny_list c) (Uts46.config_hyphens c) None None false = (Uts46.PWroteToSink, s, x)).
Print Assumptions C04_13_panic_iff.

(* the other entry points of the idna crate: deprecated Idna::to_unicode, and the lib.rs wrappers domain_to_ascii,
   domain_to_ascii_strict, domain_to_unicode - no panic (mark-errors ones: outside Known_C11 of the processed text) *)
Theorem C04_no_panic_idna_wrappers : forall A cfg, C04_Uts46_Inner.AdapterNP A -> Idna_WalkEnc.AdapterUSV A ->
  (forall c domain out, usv_list domain ->
     Idna_Known.Known_C11 A cfg (utf8_encode (Uts46.map_transitional domain (Uts46.transitional_processing c)))
       (Uts46.config_deny_list c) (Uts46.config_hyphens c) = false ->
     forall site, Uts46.idna_to_unicode A cfg c domain out <> U32_c13.Panic site)
  /\ (forall domain, usv_list domain ->
       (forall site, Uts46.domain_to_ascii A cfg domain <> U32_c13.Panic site) /\
       (forall site, Uts46.domain_to_ascii_strict A cfg domain <> U32_c13.Panic site) /\
       (Idna_Known.Known_C11 A cfg (utf8_encode domain) Uts46.DENY_EMPTY Uts46.HAllow = false ->
        forall site, Uts46.domain_to_unicode A cfg domain <> Uts46.UIPanic site)).
Proof.
  intros A cfg HN HU. split.
  - intros c domain out Hd HK. exact (Idna_WalkDepr.idna_to_unicode_no_panic A cfg HN HU c domain out Hd HK).
  - intros domain Hd. exact (Idna_WalkDepr.lib_wrappers_no_panic A cfg HN HU domain Hd).
Qed.
Check C04_no_panic_idna_wrappers : forall A cfg, C04_Uts46_Inner.AdapterNP A -> Idna_WalkEnc.AdapterUSV A ->
  (forall c domain out, usv_list domain ->
     Idna_Known.Known_C11 A cfg (utf8_encode (Uts46.map_transitional domain (Uts46.transitional_processing c)))
       (Uts46.config_deny_list c) (Uts46.config_hyphens c) = false ->
     forall site, Uts46.idna_to_unicode A cfg c domain out <> U32_c13.Panic site)
  /\ (forall domain, usv_list domain ->
       (forall site, Uts46.domain_to_ascii A cfg domain <> U32_c13.Panic site) /\
       (forall site, Uts46.domain_to_ascii_strict A cfg domain <> U32_c13.Panic site) /\
       (Idna_Known.Known_C11 A cfg (utf8_encode domain) Uts46.DENY_EMPTY Uts46.HAllow = false ->
        forall site, Uts46.domain_to_unicode A cfg domain <> Uts46.UIPanic site)).
Print Assumptions C04_no_panic_idna_wrappers.

(* C04_no_panic_uts46: a concrete adapter meets AdapterNP and AdapterUSV (the toy adapter with non-scalar values and
   U+200F replaced by U+FFFD); a mixed name goes through both entry points, one with an over-long label is rejected *)
Example C04_uts46_walk_premises_hold :
  C04_Uts46_Inner.AdapterNP Idna_WalkEnc.toy_s /\ Idna_WalkEnc.AdapterUSV Idna_WalkEnc.toy_s
  /\ Uts46.to_ascii Idna_WalkEnc.toy_s true [98; 195; 188; 99; 104; 101; 114; 46; 68; 69] Uts46.DENY_EMPTY Uts46.HAllow Uts46.DVerify
     = U32_c13.Ok (false, [120; 110; 45; 45; 98; 99; 104; 101; 114; 45; 107; 118; 97; 46; 100; 101])
  /\ Uts46.to_unicode Idna_WalkEnc.toy_s true [226; 128; 143; 46; 120; 110; 45; 45; 98; 99; 104; 101; 114; 45; 107; 118; 97] Uts46.DENY_EMPTY Uts46.HAllow
     = Uts46.UI false [65533; 46; 98; 252; 99; 104; 101; 114] true.
Proof. split; [exact Idna_WalkEnc.toy_s_np|]. split; [exact Idna_WalkEnc.toy_s_usv|]. vm_compute. split; reflexivity. Qed.

(* ===== reached records, the inventory table, cost of the remaining states ===== *)
From RU Require Proofs.C03_ReachParts Proofs.C03_ReachHist Proofs.C05_CompSteps3.

(* Url::parse (no base): never a panic - every input, any host functions, both configurations (the class of F-C04-7
   needs a file base) *)
Theorem C04_parse_no_base_no_panic : forall dbg hp hpo hd ovr input, parse_url dbg hp hpo hd ovr None input <> PPanic.
Proof. exact C04_Chain.parse_no_base_no_panic. Qed.
Check C04_parse_no_base_no_panic : forall dbg hp hpo hd ovr input, parse_url dbg hp hpo hd ovr None input <> PPanic.
Print Assumptions C04_parse_no_base_no_panic.

(* C04_parse_panic_iff WITHOUT its base_ok premise when the base is itself a result of Url::parse / Url::join
   (PJ dbg' hp hpo hd: parse without base, or parse against any record of PJ; the chain may come from either build
   configuration): base_ok reproduces itself (C05_parse_base_ok).  Only hypothesis: HostWf on the host functions
   (Display text of a host non-empty, not starting with ':' / '@', not ending in '/'; C09 discharges it for the
   host model).  Second part: no panic in a release build, and none when the base is not a file URL. *)
Theorem C04_join_panic_iff_reached : forall hp hpo hd, C03_ReachParts.HostWf hp hpo hd ->
  forall dbg dbg' ovr b input, C05_CompSteps3.PJ dbg' hp hpo hd b ->
  (parse_url dbg hp hpo hd ovr (Some b) input = PPanic <-> dbg = true /\ C04_ParseFile7.known_c04_7x (Some b) input = true)
  /\ (dbg = false \/ list_eqb (b_scheme b) s_file = false -> parse_url dbg hp hpo hd ovr (Some b) input <> PPanic).
Proof.
  intros hp hpo hd HW dbg dbg' ovr b input R.
  exact (conj (C04_Chain.join_panic_iff_pj hp hpo hd HW dbg dbg' ovr b input R)
              (C04_Chain.join_no_panic_pj hp hpo hd HW dbg dbg' ovr b input R)).
Qed.
Check C04_join_panic_iff_reached : forall hp hpo hd, C03_ReachParts.HostWf hp hpo hd ->
  forall dbg dbg' ovr b input, C05_CompSteps3.PJ dbg' hp hpo hd b ->
  (parse_url dbg hp hpo hd ovr (Some b) input = PPanic <-> dbg = true /\ C04_ParseFile7.known_c04_7x (Some b) input = true)
  /\ (dbg = false \/ list_eqb (b_scheme b) s_file = false -> parse_url dbg hp hpo hd ovr (Some b) input <> PPanic).
Print Assumptions C04_join_panic_iff_reached.

(* the premises wf_b / wfh / base_ok of C04_no_panic_accessors, C04_no_panic_setters, C04_no_panic_setters2 and
   C04_parse_panic_iff hold of every record of a parse / join chain (PJ) and wf_b / wfh of every record of a history of
   reach03 (parse, join, set_fragment, set_query, set_port, set_password, set_username, set_scheme, set_host(None),
   set_ip_host, set_path, path_segments_mut sessions: Proofs/C03_ReachHist.v); third part: the mutators with an exact
   panic class, on a reached receiver *)
Theorem C04_reached_premises : forall hp hpo hd, C03_ReachParts.HostWf hp hpo hd ->
  (forall dbg u, C05_CompSteps3.PJ dbg hp hpo hd u -> wf_b u = true /\ C06_Main.wfh u /\ C04_ParseTotal.base_ok u = true)
  /\ (forall dbg u, C03_ReachHist.reach03 dbg hp hpo hd u -> wf_b u = true /\ C06_Main.wfh u)
  /\ (forall dbg dbg' u, C03_ReachHist.reach03 dbg' hp hpo hd u ->
        (forall p, exists u', Setters.set_path dbg u p = Some u')
        /\ (forall ops, Setters.path_segments_session dbg u ops = None <-> dbg = true /\ C04_SetPath.psm_assert_fails u = true)
        /\ (forall h, Setters.set_host dbg hp hpo hd u h = None <-> dbg = true /\ h = None /\ C04_SetHost.known_c04_1 u = true)
        /\ (forall h, exists r, Setters.set_ip_host dbg hd u h = Some r)).
Proof.
  intros hp hpo hd HW.
  exact (conj (C04_Chain.pj_wf hp hpo hd HW) (conj (C04_Chain.reached_wf hp hpo hd HW) (C04_Chain.reached_setters hp hpo hd HW))).
Qed.
Check C04_reached_premises : forall hp hpo hd, C03_ReachParts.HostWf hp hpo hd ->
  (forall dbg u, C05_CompSteps3.PJ dbg hp hpo hd u -> wf_b u = true /\ C06_Main.wfh u /\ C04_ParseTotal.base_ok u = true)
  /\ (forall dbg u, C03_ReachHist.reach03 dbg hp hpo hd u -> wf_b u = true /\ C06_Main.wfh u)
  /\ (forall dbg dbg' u, C03_ReachHist.reach03 dbg' hp hpo hd u ->
        (forall p, exists u', Setters.set_path dbg u p = Some u')
        /\ (forall ops, Setters.path_segments_session dbg u ops = None <-> dbg = true /\ C04_SetPath.psm_assert_fails u = true)
        /\ (forall h, Setters.set_host dbg hp hpo hd u h = None <-> dbg = true /\ h = None /\ C04_SetHost.known_c04_1 u = true)
        /\ (forall h, exists r, Setters.set_ip_host dbg hd u h = Some r)).
Print Assumptions C04_reached_premises.

From RU Require Proofs.C04_Rest Proofs.C04_Origin Proofs.C04_Table Proofs.C16_Origin.

(* Url::origin() / quirks::origin / origin::url_origin, the panic outcome of the model EXACTLY (Proofs/C04_Origin.v): on a
   well-formed record url_origin panics (url.host().unwrap()) iff the record ITSELF has one of the five tuple schemes
   (ftp, http, https, ws, wss) and no host - a record wf_b allows and the parser never produces (a special URL always
   gets a non-empty host); the URLs met in the blob: recursion are parse results, and the origin of a parse result never
   panics; the model's recursion fuel never runs out (C16_fuel).  Hypothesis HostWf (parse results satisfy wf_b).
   NOT expressible as a panic outcome: the Rust recursion is on the machine stack - finding F-C04-11 (abort by stack
   overflow at about 36000 levels of blob: nesting) stays a known class, see C04_linear_statement. *)
Theorem C04_origin_panic_iff : forall dbg hp ho hd, C03_ReachParts.HostWf hp ho hd ->
  (forall c u, wf_b u = true ->
     (Origin.url_origin dbg hp ho hd c u = Origin.OPanic <-> C04_Origin.tuple_no_host_b u = true))
  /\ (forall c p v, Origin.url_parse dbg hp ho hd p = POk v -> Origin.url_origin dbg hp ho hd c v <> Origin.OPanic)
  /\ (forall c u, Origin.url_origin dbg hp ho hd c u <> Origin.OFuel).
Proof. exact (C04_Table.claims_hold C04_Table.P_origin). Qed.
Check C04_origin_panic_iff : forall dbg hp ho hd, C03_ReachParts.HostWf hp ho hd ->
  (forall c u, wf_b u = true ->
     (Origin.url_origin dbg hp ho hd c u = Origin.OPanic <-> C04_Origin.tuple_no_host_b u = true))
  /\ (forall c p v, Origin.url_parse dbg hp ho hd p = POk v -> Origin.url_origin dbg hp ho hd c v <> Origin.OPanic)
  /\ (forall c u, Origin.url_origin dbg hp ho hd c u <> Origin.OFuel).
Print Assumptions C04_origin_panic_iff.

(* the quirks:: module (Proofs/C04_Rest.v): the nine getters on a wf_b record and the nine setters on a wfh record never
   panic - any argument (set_search: a &str, i.e. scalar values), any host functions, both configurations.  The setters
   are wrappers over the Url mutators (C04_no_panic_setters / setters2), Parser::parse_host and Parser::parse_port
   (C04_no_panic_authority_states); set_href is Url::parse (C04_parse_no_base_no_panic). *)
Theorem C04_no_panic_quirks :
  (forall dbg u, wf_b u = true ->
     (exists s, Setters.q_protocol u = Some s) /\ (exists s, Setters.q_username dbg u = Some s)
     /\ (exists s, Setters.q_password dbg u = Some s) /\ (exists s, Setters.q_host dbg u = Some s)
     /\ (exists s, Setters.q_hostname u = Some s) /\ (exists s, Setters.q_port dbg u = Some s)
     /\ (exists s, Setters.q_pathname u = Some s) /\ (exists s, Setters.q_search dbg u = Some s)
     /\ (exists s, Setters.q_hash dbg u = Some s))
  /\ (forall dbg hp hpo hd u, C06_Main.wfh u ->
     (forall v, exists r, Setters.q_set_protocol dbg u v = Some r)
     /\ (forall v, exists r, Setters.q_set_username dbg u v = Some r)
     /\ (forall v, exists r, Setters.q_set_password dbg u v = Some r)
     /\ (forall v, exists r, Setters.q_set_host dbg hp hpo hd u v = Some r)
     /\ (forall v, exists r, Setters.q_set_hostname dbg hp hpo hd u v = Some r)
     /\ (forall v, exists r, Setters.q_set_port dbg u v = Some r)
     /\ (forall v, exists u', Setters.q_set_pathname dbg u v = Some u')
     /\ (forall v, usv_list v -> exists u', Setters.q_set_search dbg u v = Some u')
     /\ (forall v, exists u', Setters.q_set_hash dbg u v = Some u')).
Proof. exact (conj C04_Rest.quirks_getters_total C04_Rest.quirks_setters_total). Qed.
Check C04_no_panic_quirks :
  (forall dbg u, wf_b u = true ->
     (exists s, Setters.q_protocol u = Some s) /\ (exists s, Setters.q_username dbg u = Some s)
     /\ (exists s, Setters.q_password dbg u = Some s) /\ (exists s, Setters.q_host dbg u = Some s)
     /\ (exists s, Setters.q_hostname u = Some s) /\ (exists s, Setters.q_port dbg u = Some s)
     /\ (exists s, Setters.q_pathname u = Some s) /\ (exists s, Setters.q_search dbg u = Some s)
     /\ (exists s, Setters.q_hash dbg u = Some s))
  /\ (forall dbg hp hpo hd u, C06_Main.wfh u ->
     (forall v, exists r, Setters.q_set_protocol dbg u v = Some r)
     /\ (forall v, exists r, Setters.q_set_username dbg u v = Some r)
     /\ (forall v, exists r, Setters.q_set_password dbg u v = Some r)
     /\ (forall v, exists r, Setters.q_set_host dbg hp hpo hd u v = Some r)
     /\ (forall v, exists r, Setters.q_set_hostname dbg hp hpo hd u v = Some r)
     /\ (forall v, exists r, Setters.q_set_port dbg u v = Some r)
     /\ (forall v, exists u', Setters.q_set_pathname dbg u v = Some u')
     /\ (forall v, usv_list v -> exists u', Setters.q_set_search dbg u v = Some u')
     /\ (forall v, exists u', Setters.q_set_hash dbg u v = Some u')).
Print Assumptions C04_no_panic_quirks.

(* "NO PUBLIC FUNCTION PANICS", FUNCTION BY FUNCTION (Proofs/C04_Table.v).  C04_Table.table has one row per entry of the
   regenerated inventory of the 167 `pub fn`s of the five crates: (crate, name, kind, claim, name of the pinned theorem).
   C04_Table.claim i is the statement on the Gallina models that decides the rows carrying claim i (37 claims: the
   theorems of this file and of C03 / C06 / C09 / C13 / C14 / C15 / C17 / C19 / C20, plus new ones for the views,
   make_relative, the file-path conversions, Origin::new_opaque, uts46::verify_dns_length).  Kinds: KTheorem (no panic under
   the stated well-formedness premise), KExact (panics exactly in a stated class: iff), KOutside (no panic outside a
   named known class that has a witness), KByType (plain data / total model function without panic outcome),
   KDocumented (documented panic on a function without model), KHarness (no model).
     (1) the key columns of the table ARE the regenerated inventory T_C04_API: a new `pub fn` in /repo breaks this
         conjunct until a row - a decision - has been added;
     (2) every claim holds, hence the claim of every row;
     (3) exactly the KByType / KDocumented / KHarness rows carry the trivial claim;
     (4) no KByType function has a panic macro of its own in the regenerated panic-site inventory (two listed exceptions);
     (5) the census: 76 KTheorem, 20 KExact (Url::check_invariants among them: C04_check_invariants), 17 KOutside,
         48 KByType, 2 KDocumented, 4 KHarness. *)
Theorem C04_no_panic_inventory :
  map C04_Table.row_key C04_Table.table = T_C04_API
  /\ ((forall i, C04_Table.claim i) /\ Forall (fun r => C04_Table.claim (C04_Table.r_claim r)) C04_Table.table)
  /\ forallb (fun r => Bool.eqb (C04_Table.trivial_kind (C04_Table.r_kind r))
                                (C04_Table.claim_eqb_trivial (C04_Table.r_claim r))) C04_Table.table = true
  /\ forallb (fun r => negb (C04_Table.kind_eqb (C04_Table.r_kind r) C04_Table.KByType)
                       || negb (C04_Table.has_panic_macro (C04_Table.r_name r))
                       || existsb (String.eqb (C04_Table.r_name r)) C04_Table.bytype_exceptions) C04_Table.table = true
  /\ (length C04_Table.table = 167%nat /\ C04_Table.count_kind C04_Table.KTheorem = 76%nat
      /\ C04_Table.count_kind C04_Table.KExact = 20%nat /\ C04_Table.count_kind C04_Table.KOutside = 17%nat
      /\ C04_Table.count_kind C04_Table.KByType = 48%nat /\ C04_Table.count_kind C04_Table.KDocumented = 2%nat
      /\ C04_Table.count_kind C04_Table.KHarness = 4%nat).
Proof.
  exact (conj C04_Table.table_complete (conj (conj C04_Table.claims_hold C04_Table.table_sound)
        (conj C04_Table.kinds_consistent (conj C04_Table.bytype_no_panic_macro C04_Table.table_counts)))).
Qed.
Check C04_no_panic_inventory :
  map C04_Table.row_key C04_Table.table = T_C04_API
  /\ ((forall i, C04_Table.claim i) /\ Forall (fun r => C04_Table.claim (C04_Table.r_claim r)) C04_Table.table)
  /\ forallb (fun r => Bool.eqb (C04_Table.trivial_kind (C04_Table.r_kind r))
                                (C04_Table.claim_eqb_trivial (C04_Table.r_claim r))) C04_Table.table = true
  /\ forallb (fun r => negb (C04_Table.kind_eqb (C04_Table.r_kind r) C04_Table.KByType)
                       || negb (C04_Table.has_panic_macro (C04_Table.r_name r))
                       || existsb (String.eqb (C04_Table.r_name r)) C04_Table.bytype_exceptions) C04_Table.table = true
  /\ (length C04_Table.table = 167%nat /\ C04_Table.count_kind C04_Table.KTheorem = 76%nat
      /\ C04_Table.count_kind C04_Table.KExact = 20%nat /\ C04_Table.count_kind C04_Table.KOutside = 17%nat
      /\ C04_Table.count_kind C04_Table.KByType = 48%nat /\ C04_Table.count_kind C04_Table.KDocumented = 2%nat
      /\ C04_Table.count_kind C04_Table.KHarness = 4%nat).
Print Assumptions C04_no_panic_inventory.

(* ================================================================== cost of the remaining states *)
From RU Require Proofs.C04_CostAuth Proofs.C04_CostMime Proofs.C04_CostIdna.

(* the AUTHORITY states of the URL parser (Proofs/C04_CostAuth.v; cost semantics of Model/Cost.v).
   userinfo: the two passes (search for the last '@', then the encoding pass) - twins equal to the model functions,
   at most 14 |input| + 4 steps.  host and port: the scans are twins of host_scan / file_host_scan / parse_port_loop;
   Host::parse / Host::parse_opaque and Display are parameters of the parser model, so their cost enters as the
   parameters hpc / hpoc (steps of the two host parsers on a text - Host::parse contains the IDNA processing) and the
   length of the Display text: the state costs at most 3 |input| + 49 + the cost of the host parser on the host text
   (a piece of the input) + the Display text; with host functions that are linear (a, b; Display d, e) it is linear. *)
Theorem C04_cost_authority :
  (forall special l count last,
     fst (C04_CostAuth.scan_last_at_c special l count last) = scan_last_at special l count last
     /\ snd (C04_CostAuth.scan_last_at_c special l count last) <= nlen l + 1)
  /\ (forall l n ser uend hpw hun, usv_list l ->
     fst (C04_CostAuth.userinfo_loop_c l n ser uend hpw hun) = userinfo_loop l n ser uend hpw hun
     /\ snd (C04_CostAuth.userinfo_loop_c l n ser uend hpw hun) <= 13 * nlen l + 1)
  /\ (forall st ser l, usv_list l -> C04_CostAuth.parse_userinfo_cost st ser l <= 14 * nlen l + 4)
  /\ (forall special l inside acc,
     fst (C04_CostAuth.host_scan_c special inside acc l) = host_scan special inside acc l
     /\ snd (C04_CostAuth.host_scan_c special inside acc l) <= 2 * nlen l + 1)
  /\ (forall l acc,
     fst (C04_CostAuth.file_host_scan_c acc l) = file_host_scan acc l
     /\ snd (C04_CostAuth.file_host_scan_c acc l) <= 2 * nlen l + 1)
  /\ (forall ctx l port any,
     fst (C04_CostAuth.parse_port_loop_c ctx l port any) = parse_port_loop ctx l port any
     /\ snd (C04_CostAuth.parse_port_loop_c ctx l port any) <= nlen l + 1)
  /\ (forall hp hpo hd hpc hpoc ctx st l,
     nlen (C04_CostAuth.host_text st l) <= nlen l
     /\ C04_CostAuth.parse_host_and_port_cost hp hpo hd hpc hpoc ctx st l
        <= 3 * nlen l + 49 + hpc (C04_CostAuth.host_text st l) + hpoc (C04_CostAuth.host_text st l)
           + match parse_host hp hpo st l with POk (host, _) => nlen (hd host) | _ => 0 end)
  /\ (forall hp hpo hd hpc hpoc ctx st l a b d e,
     (forall t, hpc t <= a * nlen t + b) -> (forall t, hpoc t <= a * nlen t + b) ->
     (forall t h, hp t = Ok h \/ hpo t = Ok h -> nlen (hd h) <= d * nlen t + e) -> nlen (hd (HDomain [])) <= e ->
     C04_CostAuth.parse_host_and_port_cost hp hpo hd hpc hpoc ctx st l <= (3 + 2 * a + d) * nlen l + (49 + 2 * b + e)).
Proof.
  split; [exact C04_CostAuth.scan_last_at_c_spec|]. split; [exact C04_CostAuth.userinfo_loop_c_spec|].
  split; [exact C04_CostAuth.parse_userinfo_linear|].
  split; [intros special l inside acc; destruct (C04_CostAuth.host_scan_c_spec special l inside acc) as (H1 & H2 & _); exact (conj H1 H2)|].
  split; [intros l acc; destruct (C04_CostAuth.file_host_scan_c_spec l acc) as (H1 & H2 & _); exact (conj H1 H2)|].
  split; [exact C04_CostAuth.parse_port_loop_c_spec|].
  split; [intros hp hpo hd hpc hpoc ctx st l;
          exact (conj (C04_CostAuth.host_text_len hp hpo hpc hpoc st l) (C04_CostAuth.parse_host_and_port_cost_le hp hpo hd hpc hpoc ctx st l))|].
  exact C04_CostAuth.parse_host_and_port_linear.
Qed.
Check C04_cost_authority :
  (forall special l count last,
     fst (C04_CostAuth.scan_last_at_c special l count last) = scan_last_at special l count last
     /\ snd (C04_CostAuth.scan_last_at_c special l count last) <= nlen l + 1)
  /\ (forall l n ser uend hpw hun, usv_list l ->
     fst (C04_CostAuth.userinfo_loop_c l n ser uend hpw hun) = userinfo_loop l n ser uend hpw hun
     /\ snd (C04_CostAuth.userinfo_loop_c l n ser uend hpw hun) <= 13 * nlen l + 1)
  /\ (forall st ser l, usv_list l -> C04_CostAuth.parse_userinfo_cost st ser l <= 14 * nlen l + 4)
  /\ (forall special l inside acc,
     fst (C04_CostAuth.host_scan_c special inside acc l) = host_scan special inside acc l
     /\ snd (C04_CostAuth.host_scan_c special inside acc l) <= 2 * nlen l + 1)
  /\ (forall l acc,
     fst (C04_CostAuth.file_host_scan_c acc l) = file_host_scan acc l
     /\ snd (C04_CostAuth.file_host_scan_c acc l) <= 2 * nlen l + 1)
  /\ (forall ctx l port any,
     fst (C04_CostAuth.parse_port_loop_c ctx l port any) = parse_port_loop ctx l port any
     /\ snd (C04_CostAuth.parse_port_loop_c ctx l port any) <= nlen l + 1)
  /\ (forall hp hpo hd hpc hpoc ctx st l,
     nlen (C04_CostAuth.host_text st l) <= nlen l
     /\ C04_CostAuth.parse_host_and_port_cost hp hpo hd hpc hpoc ctx st l
        <= 3 * nlen l + 49 + hpc (C04_CostAuth.host_text st l) + hpoc (C04_CostAuth.host_text st l)
           + match parse_host hp hpo st l with POk (host, _) => nlen (hd host) | _ => 0 end)
  /\ (forall hp hpo hd hpc hpoc ctx st l a b d e,
     (forall t, hpc t <= a * nlen t + b) -> (forall t, hpoc t <= a * nlen t + b) ->
     (forall t h, hp t = Ok h \/ hpo t = Ok h -> nlen (hd h) <= d * nlen t + e) -> nlen (hd (HDomain [])) <= e ->
     C04_CostAuth.parse_host_and_port_cost hp hpo hd hpc hpoc ctx st l <= (3 + 2 * a + d) * nlen l + (49 + 2 * b + e)).
Print Assumptions C04_cost_authority.

(* MIME type parsing (Proofs/C04_CostMime.v): for a &str that parses, the cost is at most
   (14 + P) * (|input| + 1) + 4 where P is the number of parameters of the RESULT - linear whenever the number of
   accepted parameters is bounded.  The product term is real: finding F-C04-9 - with n pairwise distinct parameter
   names the cost is at least n (n - 1) / 2 (contains() scans the parameters collected so far), stated here for
   n = 50, 100, 200 (instances of Proofs/C04_Quad.v: mime_distinct_n_params, f_c04_9_upto) together with the linear
   behaviour of the same-name family (by computation). *)
Theorem C04_cost_mime :
  (forall s m, usv_list s -> Mime.parse s = Mime.Ok (Some m) ->
     C04_CostMime.mime_parse_cost s <= (14 + C04_CostMime.plen (Mime.m_params m)) * (nlen s + 1) + 4)
  /\ ((C04_CostMime.n_params (C04_CostMime.mime_distinct 50) = 50
       /\ 50 * 49 <= 2 * C04_CostMime.mime_parse_cost (C04_CostMime.mime_distinct 50))
      /\ (C04_CostMime.n_params (C04_CostMime.mime_distinct 100) = 100
          /\ 100 * 99 <= 2 * C04_CostMime.mime_parse_cost (C04_CostMime.mime_distinct 100))
      /\ (C04_CostMime.n_params (C04_CostMime.mime_distinct 200) = 200
          /\ 200 * 199 <= 2 * C04_CostMime.mime_parse_cost (C04_CostMime.mime_distinct 200)))
  /\ ((C04_CostMime.n_params (C04_CostMime.mime_same 50) = 1
       /\ C04_CostMime.mime_parse_cost (C04_CostMime.mime_same 50) <= 15 * (nlen (C04_CostMime.mime_same 50) + 1) + 4)
      /\ (C04_CostMime.n_params (C04_CostMime.mime_same 100) = 1
          /\ C04_CostMime.mime_parse_cost (C04_CostMime.mime_same 100) <= 15 * (nlen (C04_CostMime.mime_same 100) + 1) + 4)
      /\ (C04_CostMime.n_params (C04_CostMime.mime_same 200) = 1
          /\ C04_CostMime.mime_parse_cost (C04_CostMime.mime_same 200) <= 15 * (nlen (C04_CostMime.mime_same 200) + 1) + 4)).
Proof.
  assert (D : forall n, N.of_nat n <= 10000000000 ->
            C04_CostMime.n_params (C04_CostMime.mime_distinct n) = N.of_nat n
            /\ N.of_nat n * (N.of_nat n - 1) <= 2 * C04_CostMime.mime_parse_cost (C04_CostMime.mime_distinct n))
    by (intros n Hn; exact (conj (C04_Quad.mime_distinct_n_params n Hn) (C04_Quad.f_c04_9_upto n Hn))).
  exact (conj C04_CostMime.mime_parse_cost_le
        (conj (conj (D 50%nat ltac:(discriminate)) (conj (D 100%nat ltac:(discriminate)) (D 200%nat ltac:(discriminate))))
              C04_CostMime.same_name_linear_50_100_200)).
Qed.
Check C04_cost_mime :
  (forall s m, usv_list s -> Mime.parse s = Mime.Ok (Some m) ->
     C04_CostMime.mime_parse_cost s <= (14 + C04_CostMime.plen (Mime.m_params m)) * (nlen s + 1) + 4)
  /\ ((C04_CostMime.n_params (C04_CostMime.mime_distinct 50) = 50
       /\ 50 * 49 <= 2 * C04_CostMime.mime_parse_cost (C04_CostMime.mime_distinct 50))
      /\ (C04_CostMime.n_params (C04_CostMime.mime_distinct 100) = 100
          /\ 100 * 99 <= 2 * C04_CostMime.mime_parse_cost (C04_CostMime.mime_distinct 100))
      /\ (C04_CostMime.n_params (C04_CostMime.mime_distinct 200) = 200
          /\ 200 * 199 <= 2 * C04_CostMime.mime_parse_cost (C04_CostMime.mime_distinct 200)))
  /\ ((C04_CostMime.n_params (C04_CostMime.mime_same 50) = 1
       /\ C04_CostMime.mime_parse_cost (C04_CostMime.mime_same 50) <= 15 * (nlen (C04_CostMime.mime_same 50) + 1) + 4)
      /\ (C04_CostMime.n_params (C04_CostMime.mime_same 100) = 1
          /\ C04_CostMime.mime_parse_cost (C04_CostMime.mime_same 100) <= 15 * (nlen (C04_CostMime.mime_same 100) + 1) + 4)
      /\ (C04_CostMime.n_params (C04_CostMime.mime_same 200) = 1
          /\ C04_CostMime.mime_parse_cost (C04_CostMime.mime_same 200) <= 15 * (nlen (C04_CostMime.mime_same 200) + 1) + 4)).
Print Assumptions C04_cost_mime.

(* the two OUTPUT WALKS of Uts46::process (Proofs/C04_CostIdna.v).  wsize = what a walk hands to the sink (one step per
   write call plus the code points written; a label written as Unicode is one write_char per element).  For ANY labels,
   already_punycode list, start state and policy: the writes of a walk are bounded by the prefix of the input, flushed at
   most once (fl_cost), plus, per label, twice the label, twice its mixed-case source slice, the encoder output and a
   constant (wbound) - no term is multiplied by the number of labels.  The Punycode encoder itself (quadratic) has no
   cost twin; what is proved about it is the cap (third part): every label of the domain_buffer that the marking run
   leaves is ASCII (never encoded), marked with U+FFFD (never encoded) or at most 1000 scalar values long - for every
   byte input, deny list, hyphen mode and every adapter returning scalar values; a walk encodes a label at most once. *)
Theorem C04_cost_uts46_walks : forall cfg,
  (forall ff oau dn tld bidi he labels aps seen pte flushed huo,
     C04_CostIdna.wsize (fst (Uts46.walk1 cfg ff oau dn tld bidi he labels aps seen pte flushed huo))
     <= C04_CostIdna.fl_cost dn flushed + C04_CostIdna.wbound cfg labels aps)
  /\ (forall dn he labels aps seen pte flushed,
     C04_CostIdna.wsize (fst (Uts46.walk2 cfg dn he labels aps seen pte flushed))
     <= C04_CostIdna.fl_cost dn flushed + C04_CostIdna.wbound cfg labels aps)
  /\ (forall A hy deny d, Idna_WalkEnc.AdapterUSV A ->
      match Uts46.process_inner A cfg false hy deny d with
      | Uts46.IRes _ _ _ db _ => Forall Idna_WalkEnc.capped (Uts46.split_on Uts46.DOT db)
      | Uts46.IPanic _ => True
      end).
Proof.
  intros cfg. split; [exact (C04_CostIdna.walk1_wsize cfg)|]. split; [exact (C04_CostIdna.walk2_wsize cfg)|].
  intros A hy deny d HU. exact (C04_CostIdna.labels_capped A cfg HU hy deny d).
Qed.
Check C04_cost_uts46_walks : forall cfg,
  (forall ff oau dn tld bidi he labels aps seen pte flushed huo,
     C04_CostIdna.wsize (fst (Uts46.walk1 cfg ff oau dn tld bidi he labels aps seen pte flushed huo))
     <= C04_CostIdna.fl_cost dn flushed + C04_CostIdna.wbound cfg labels aps)
  /\ (forall dn he labels aps seen pte flushed,
     C04_CostIdna.wsize (fst (Uts46.walk2 cfg dn he labels aps seen pte flushed))
     <= C04_CostIdna.fl_cost dn flushed + C04_CostIdna.wbound cfg labels aps)
  /\ (forall A hy deny d, Idna_WalkEnc.AdapterUSV A ->
      match Uts46.process_inner A cfg false hy deny d with
      | Uts46.IRes _ _ _ db _ => Forall Idna_WalkEnc.capped (Uts46.split_on Uts46.DOT db)
      | Uts46.IPanic _ => True
      end).
Print Assumptions C04_cost_uts46_walks.

From RU Require Proofs.C04_CostPathUp Proofs.C04_CostPathDD Proofs.C02_AuthMain Proofs.C03_ReachHost.

(* THE PATH STATE, UPPER BOUND (Proofs/C04_CostPathUp.v, C04_CostPathDD.v) - every scheme type, context and input.
   dd_count = the number of times finish_segment sees a double-dot segment in the run; run_bound = |serialization| +
   12 |pending| + 13 |input| bounds every serialization of the run.
   (1) steps <= 18 |input| + 12 |pending| + 5 + (file: 2 M + 3) + dd_count * (2 M + 3), M = run_bound: the ONLY
       super-linear part of parse_path is the resolution of double-dot segments (finding F-C04-8 shows it is real);
   (2) hence linear when the run resolves no double-dot segment;
   (3) and never more than quadratic (dd_count <= |input| + 1) - with C04_8_dotdots_cost the order n * L is exact;
   (4) a computable sufficient condition for (2): a non-file scheme type and an input without '.' and '%' (dotfree),
       started at a segment boundary as parse_path does: then dd_count = 0 and parse_path costs <= 18 |input| + 5;
   (5) PathSegmentsMut::extend outside finding F-C04-6: for a non-file scheme type and dotfree segments the whole call
       costs at most 20 per character (18 for parse_path, 2 for the skip test of extend) + 7 per segment + 1 (file: URLs are quadratic: C04_6_refuted). *)
Theorem C04_cost_path_upper : forall dbg,
  (forall ctx st ps l ser ss pend hh, usv_list l -> usv_list pend ->
     snd (parse_path_loop_c dbg ctx st ps l ser ss pend hh)
     <= 18 * nlen l + 12 * nlen pend + 5 + C04_CostPathUp.fix_bound st (C04_CostPathUp.run_bound ser pend l)
        + C04_CostPathUp.dd_count dbg ctx st ps l ser ss pend hh * (2 * C04_CostPathUp.run_bound ser pend l + 3))
  /\ (forall ctx st ps l ser ss pend hh, usv_list l -> usv_list pend ->
     C04_CostPathUp.dd_count dbg ctx st ps l ser ss pend hh = 0 ->
     snd (parse_path_loop_c dbg ctx st ps l ser ss pend hh) <= 44 * (nlen ser + nlen pend + nlen l) + 8)
  /\ (forall ctx st ps l ser ss pend hh, usv_list l -> usv_list pend ->
     snd (parse_path_loop_c dbg ctx st ps l ser ss pend hh)
     <= 18 * nlen l + 12 * nlen pend + 5 + (nlen l + 2) * (2 * C04_CostPathUp.run_bound ser pend l + 3))
  /\ (forall ctx st hh ps ser l, st_is_file st = false -> usv_list l -> C04_CostPathDD.dotfree l ->
     C04_CostPathUp.dd_count dbg ctx st ps l ser (nlen ser) [] hh = 0
     /\ snd (parse_path_c dbg ctx st hh ps ser l) <= 18 * nlen l + 5)
  /\ (forall st ps segs s, st_is_file st = false -> Forall usv_list segs -> Forall C04_CostPathDD.dotfree segs ->
     snd (psm_extend_loop_c dbg st ps s segs)
     <= 20 * C04_CostPathDD.total_len segs + 7 * nlen (map nlen segs) + 1).
Proof.
  intros dbg. split; [exact (C04_CostPathUp.path_cost_upper dbg)|]. split; [exact (C04_CostPathUp.path_cost_linear_no_dd dbg)|].
  split; [exact (C04_CostPathUp.path_cost_quadratic dbg)|]. split.
  - intros ctx st hh ps ser l Hf Hl Hd. split.
    + exact (C04_CostPathDD.dd_count_dotfree dbg ctx st ps l Hf ser (nlen ser) [] hh Hl Hd (Forall_nil _) (Forall_nil _)
               (C04_CostPathDD.seg_units_end ser)).
    + exact (C04_CostPathDD.parse_path_linear_dotfree_nofile dbg ctx st hh ps ser l Hf Hl Hd).
  - intros st ps segs s Hf Hu Hd. exact (C04_CostPathDD.extend_linear_dotfree dbg st ps segs Hf Hu Hd s).
Qed.
Check C04_cost_path_upper : forall dbg,
  (forall ctx st ps l ser ss pend hh, usv_list l -> usv_list pend ->
     snd (parse_path_loop_c dbg ctx st ps l ser ss pend hh)
     <= 18 * nlen l + 12 * nlen pend + 5 + C04_CostPathUp.fix_bound st (C04_CostPathUp.run_bound ser pend l)
        + C04_CostPathUp.dd_count dbg ctx st ps l ser ss pend hh * (2 * C04_CostPathUp.run_bound ser pend l + 3))
  /\ (forall ctx st ps l ser ss pend hh, usv_list l -> usv_list pend ->
     C04_CostPathUp.dd_count dbg ctx st ps l ser ss pend hh = 0 ->
     snd (parse_path_loop_c dbg ctx st ps l ser ss pend hh) <= 44 * (nlen ser + nlen pend + nlen l) + 8)
  /\ (forall ctx st ps l ser ss pend hh, usv_list l -> usv_list pend ->
     snd (parse_path_loop_c dbg ctx st ps l ser ss pend hh)
     <= 18 * nlen l + 12 * nlen pend + 5 + (nlen l + 2) * (2 * C04_CostPathUp.run_bound ser pend l + 3))
  /\ (forall ctx st hh ps ser l, st_is_file st = false -> usv_list l -> C04_CostPathDD.dotfree l ->
     C04_CostPathUp.dd_count dbg ctx st ps l ser (nlen ser) [] hh = 0
     /\ snd (parse_path_c dbg ctx st hh ps ser l) <= 18 * nlen l + 5)
  /\ (forall st ps segs s, st_is_file st = false -> Forall usv_list segs -> Forall C04_CostPathDD.dotfree segs ->
     snd (psm_extend_loop_c dbg st ps s segs)
     <= 20 * C04_CostPathDD.total_len segs + 7 * nlen (map nlen segs) + 1).
Print Assumptions C04_cost_path_upper.

From RU Require Proofs.C04_CostPuny.

(* the Punycode ENCODER (Proofs/C04_CostPuny.v): one pass for the basic code points, then per iteration of
   `while processed < input_length` one pass for the minimum and one pass of the inner loop; digits are counted by the
   length of the output.  (1) every input, both callers: steps <= n + (n + 1)(2n + 2) + 1 + |output| - the quadratic
   upper bound for the PUBLIC encoder (finding F-C04-10: no cap there); (2) under the cap of the internal caller
   (n <= 1000: what the uts46 walks can hand to it, C04_cost_uts46_walks part 3): steps <= 2005 (n + 1) + |output|, a
   constant per character; (3) F-C04-10 in the cost model by computation: n pairwise distinct CJK characters cost at
   least 2 n^2 (n = 50, 100, 200), 200 copies of one character at most 1020.  The decoder has no cost twin. *)
Theorem C04_cost_punycode :
  (forall cfg ext input,
     C04_CostPuny.encode_cost cfg ext input
     <= C04_CostPuny.plen input + (C04_CostPuny.plen input + 1) * (2 * C04_CostPuny.plen input + 2) + 1
        + C04_CostPuny.out_len (Punycode.encode_into cfg ext input))
  /\ (forall cfg ext input, C04_CostPuny.plen input <= 1000 ->
     C04_CostPuny.encode_cost cfg ext input
     <= 2005 * (C04_CostPuny.plen input + 1) + C04_CostPuny.out_len (Punycode.encode_into cfg ext input))
  /\ (2 * 50 * 50 <= C04_CostPuny.encode_cost false true (C04_CostPuny.distinct_cjk 50)
      /\ 2 * 100 * 100 <= C04_CostPuny.encode_cost false true (C04_CostPuny.distinct_cjk 100)
      /\ 2 * 200 * 200 <= C04_CostPuny.encode_cost false true (C04_CostPuny.distinct_cjk 200)
      /\ C04_CostPuny.encode_cost false true (map (fun _ => 19968) (C04_CostPuny.distinct_cjk 200)) <= 5 * 200 + 20).
Proof.
  exact (conj C04_CostPuny.encode_cost_le (conj C04_CostPuny.encode_cost_capped C04_CostPuny.f_c04_10_quadratic_50_100_200)).
Qed.
Check C04_cost_punycode :
  (forall cfg ext input,
     C04_CostPuny.encode_cost cfg ext input
     <= C04_CostPuny.plen input + (C04_CostPuny.plen input + 1) * (2 * C04_CostPuny.plen input + 2) + 1
        + C04_CostPuny.out_len (Punycode.encode_into cfg ext input))
  /\ (forall cfg ext input, C04_CostPuny.plen input <= 1000 ->
     C04_CostPuny.encode_cost cfg ext input
     <= 2005 * (C04_CostPuny.plen input + 1) + C04_CostPuny.out_len (Punycode.encode_into cfg ext input))
  /\ (2 * 50 * 50 <= C04_CostPuny.encode_cost false true (C04_CostPuny.distinct_cjk 50)
      /\ 2 * 100 * 100 <= C04_CostPuny.encode_cost false true (C04_CostPuny.distinct_cjk 100)
      /\ 2 * 200 * 200 <= C04_CostPuny.encode_cost false true (C04_CostPuny.distinct_cjk 200)
      /\ C04_CostPuny.encode_cost false true (map (fun _ => 19968) (C04_CostPuny.distinct_cjk 200)) <= 5 * 200 + 20).
Print Assumptions C04_cost_punycode.

(* ================================================================== the overall linear-time statement *)
(* "runs no longer than a constant times its input length", IN THE COST MODEL, with the exact known classes.  Every cost
   twin of the development (Model/Cost.v, Proofs/C04_Cost*.v) has a linear bound, except inside:
     F-C04-8  (path state: double-dot segments resolved behind a long prefix)  - linear iff no double-dot finish, part 6;
     F-C04-6  (PathSegmentsMut::extend on file: URLs)                          - linear for non-file schemes, part 6;
     F-C04-9  (MIME parameters with pairwise distinct names)                   - linear for a bounded number, part 7;
   and relative to parameters where the model has parameters (host functions; the Punycode encoder inside the uts46
   walks, capped at 1000 scalar values: part 8).
   NOT expressible here, because the function has no cost twin (the harness doubling experiment only):
     F-C04-10 (the public punycode functions: the encoder is quadratic and uncapped - upper bound and witnesses in
               C04_cost_punycode, linear under the cap: part 9 -, the decoder has no cost twin),
     F-C04-11 (Url::origin on nested blob: URLs: recursion depth = number of "blob:" levels, bounded only by the number
               of ':' in the serialization - C16_parse_colons - and on the machine stack in the Rust),
     the label pipeline process_inner of uts46 (linear passes plus the capped Punycode decoder, relative to the
     normalizer of the adapter), the data: header pre-parser, the setters other than extend, make_relative, file paths. *)
Definition C04_linear_statement : Prop :=
  (* 1 percent_encoding *)
  (forall S bs, snd (decode_c bs) <= 3 * nlen bs /\ snd (pe_chunks_c S bs) <= 5 * nlen bs + 1)
  (* 2 form_urlencoded *)
  /\ (forall bs, snd (bser_chunks_c bs) <= 5 * nlen bs + 1
                 /\ snd (parse_next_c bs) <= 5 * (nlen bs - nlen (C04_Cost.pnext_rest (FormUrlencoded.parse_next bs))) + 2)
  (* 3 base64 *)
  /\ (forall (W E : Type) (write : W -> list N -> W * option E) d input, snd (feed_c write d input) <= nlen input)
  (* 4 fragment, query, opaque path *)
  /\ (forall set enc iup ctx ser l, C04_Cost.enc_ok enc -> usv_list l ->
        snd (parse_fragment_loop_c ser [] l) <= 13 * nlen l + 1
        /\ snd (parse_query_loop_c set enc iup ser [] l) <= 13 * nlen l + 1
        /\ snd (parse_cannot_be_a_base_path_c ctx ser l) <= 13 * nlen l + 1)
  (* 5 userinfo; host and port relative to linear host functions *)
  /\ (forall st ser l, usv_list l -> C04_CostAuth.parse_userinfo_cost st ser l <= 14 * nlen l + 4)
  /\ (forall hp hpo hd hpc hpoc ctx st l a b d e,
        (forall t, hpc t <= a * nlen t + b) -> (forall t, hpoc t <= a * nlen t + b) ->
        (forall t h, hp t = Ok h \/ hpo t = Ok h -> nlen (hd h) <= d * nlen t + e) -> nlen (hd (HDomain [])) <= e ->
        C04_CostAuth.parse_host_and_port_cost hp hpo hd hpc hpoc ctx st l <= (3 + 2 * a + d) * nlen l + (49 + 2 * b + e))
  (* 6 path state outside F-C04-8, extend outside F-C04-6 *)
  /\ (forall dbg ctx st ps l ser ss pend hh, usv_list l -> usv_list pend ->
        C04_CostPathUp.dd_count dbg ctx st ps l ser ss pend hh = 0 ->
        snd (parse_path_loop_c dbg ctx st ps l ser ss pend hh) <= 44 * (nlen ser + nlen pend + nlen l) + 8)
  /\ (forall dbg st ps segs s, st_is_file st = false -> Forall usv_list segs -> Forall C04_CostPathDD.dotfree segs ->
        snd (psm_extend_loop_c dbg st ps s segs) <= 20 * C04_CostPathDD.total_len segs + 7 * nlen (map nlen segs) + 1)
  (* 7 MIME outside F-C04-9 *)
  /\ (forall s m, usv_list s -> Mime.parse s = Mime.Ok (Some m) ->
        C04_CostMime.mime_parse_cost s <= (14 + C04_CostMime.plen (Mime.m_params m)) * (nlen s + 1) + 4)
  (* 8 uts46 output walks; the encoder is capped *)
  /\ (forall cfg ff oau dn tld bidi he labels aps seen pte flushed huo,
        C04_CostIdna.wsize (fst (Uts46.walk1 cfg ff oau dn tld bidi he labels aps seen pte flushed huo))
        <= C04_CostIdna.fl_cost dn flushed + C04_CostIdna.wbound cfg labels aps)
  /\ (forall cfg dn he labels aps seen pte flushed,
        C04_CostIdna.wsize (fst (Uts46.walk2 cfg dn he labels aps seen pte flushed))
        <= C04_CostIdna.fl_cost dn flushed + C04_CostIdna.wbound cfg labels aps)
  /\ (forall A cfg hy deny d, Idna_WalkEnc.AdapterUSV A ->
        match Uts46.process_inner A cfg false hy deny d with
        | Uts46.IRes _ _ _ db _ => Forall Idna_WalkEnc.capped (Uts46.split_on Uts46.DOT db)
        | Uts46.IPanic _ => True
        end)
  (* 9 the Punycode encoder under the cap of its internal caller (1000 scalar values): a constant per character *)
  /\ (forall cfg ext input, C04_CostPuny.plen input <= 1000 ->
        C04_CostPuny.encode_cost cfg ext input
        <= 2005 * (C04_CostPuny.plen input + 1) + C04_CostPuny.out_len (Punycode.encode_into cfg ext input))
  (* the known classes are inhabited: no linear bound for the path state (F-C04-8) *)
  /\ (forall a b : N, exists pre l dbg hh, usv_list l /\
        a * (nlen (pre ++ [47]) + nlen l) + b
        < snd (parse_path_loop_c dbg CUrlParser STNotSpecial (nlen pre) l (pre ++ [47]) (nlen (pre ++ [47])) [] hh)).

Theorem C04_linear : C04_linear_statement.
Proof.
  split; [intros S bs; exact (conj (C04_Cost.decode_c_linear bs) (C04_Cost.pe_chunks_c_linear S bs))|].
  split; [intros bs; exact (conj (C04_Cost.bser_chunks_c_linear bs) (C04_Cost.parse_next_c_linear bs))|].
  split; [intros W E write d input; exact (proj2 (C04_Cost.feed_c_spec write input d))|].
  split; [intros set enc iup ctx ser l He Hl;
          exact (conj (proj2 (C04_Cost.parse_fragment_c_linear ser l Hl))
                (conj (proj2 (C04_Cost.parse_query_c_linear set enc iup ser l He Hl)) (proj2 (C04_Cost.parse_cbb_c_linear ctx ser l Hl))))|].
  split; [exact C04_CostAuth.parse_userinfo_linear|]. split; [exact C04_CostAuth.parse_host_and_port_linear|].
  split; [exact C04_CostPathUp.path_cost_linear_no_dd|].
  split; [intros dbg st ps segs s Hf Hu Hd; exact (C04_CostPathDD.extend_linear_dotfree dbg st ps segs Hf Hu Hd s)|].
  split; [exact C04_CostMime.mime_parse_cost_le|].
  split; [exact C04_CostIdna.walk1_wsize|]. split; [exact C04_CostIdna.walk2_wsize|].
  split; [intros A cfg hy deny d HU; exact (C04_CostIdna.labels_capped A cfg HU hy deny d)|].
  split; [exact C04_CostPuny.encode_cost_capped|].
  exact C04_CostPath.path_cost_not_linear.
Qed.
Check C04_linear : C04_linear_statement.
Print Assumptions C04_linear.

(* non-vacuity of the new theorems: a concrete host-function instance meets HostWf and a parse / join chain exists (PJ);
   the table has a row for Url::origin carrying the exact claim; a run with three ".." has dd_count 3, one without has 0;
   the cost twins of the userinfo / host / port states on "u:p@h:80/" *)
Example C04_fin_premises_hold :
  C03_ReachParts.HostWf C02_AuthMain.ex_hp C02_AuthMain.ex_hp C02_AuthMain.ex_hd
  /\ (exists u, C05_CompSteps3.PJ true C02_AuthMain.ex_hp C02_AuthMain.ex_hp C02_AuthMain.ex_hd u /\ ser u = [104;116;116;112;58;47;47;104;47;120])
  /\ C04_CostPathUp.dd_count true CUrlParser STNotSpecial 2 (C04_CostPath.dotdots 3) [97; 58; 47] 3 [] false = 3
  /\ C04_CostPathUp.dd_count true CUrlParser STNotSpecial 2 [98; 47; 99; 63; 113] [97; 58; 47] 3 [] false = 0
  /\ C04_CostPathDD.dotfree [98; 47; 99; 63; 113]
  /\ C04_CostAuth.parse_userinfo_cost STNotSpecial [97; 58; 47; 47] [117; 58; 112; 64; 104; 58; 56; 48; 47] = 18
  /\ snd (C04_CostAuth.host_scan_c false false [] [104; 58; 56; 48; 47]) = 3
  /\ C04_Origin.tuple_no_host_b C04_ParseTotal.cbb_special_base = true.
Proof.
  split; [exact C03_ReachHost.ex_host_wf|]. split.
  - eexists. split.
    + eapply C05_CompSteps3.PJ_join with (ovr := None) (input := [120]);
        [eapply C05_CompSteps3.PJ_parse with (ovr := None) (input := [104;116;116;112;58;47;47;104;47;97]); vm_compute; reflexivity
        | vm_compute; reflexivity].
    + reflexivity.
  - split; [vm_compute; reflexivity|]. split; [vm_compute; reflexivity|].
    split; [unfold C04_CostPathDD.dotfree; repeat constructor; discriminate|].
    split; [vm_compute; reflexivity|]. split; [vm_compute; reflexivity|]. vm_compute. reflexivity.
Qed.

(* finding F-C04-9 for all n (kept as a Definition; instances n = 50, 100, 200 are in C04_cost_mime) *)
Definition C04_9_quadratic_statement : Prop :=
  forall n, N.of_nat n * (N.of_nat n - 1) <= 2 * C04_CostMime.mime_parse_cost (C04_CostMime.mime_distinct n).

(* F-C06-7, found by C04 as C04_push_tab_dotdot_witness, is FIXED (rust-url commit 9cd6187): extend() now makes its skip
   test on the tab / LF / CR-free text of the segment - the text the path state will see - so push(".<TAB>.") is skipped
   like push("..") and http://h/a/b is left alone in both configurations (before the repair the Input iterator dropped
   the TAB, the path state saw a double dot and POPPED the segment b: http://h/a/).  The test scans the segment at most
   twice (6 steps here), which is the 2 per character of C04_cost_path_upper (5); parse_path on that text would still
   count one double dot (last clause) - the segment no longer reaches it. *)
Theorem C04_push_tab_dotdot_fixed :
  Setters.path_segments_session true C04_CostPathDD.w_tab_url [Setters.PPush [46; 9; 46]] = Some (C04_CostPathDD.w_tab_url, Setters.SOk)
  /\ Setters.path_segments_session false C04_CostPathDD.w_tab_url [Setters.PPush [46; 9; 46]] = Some (C04_CostPathDD.w_tab_url, Setters.SOk)
  /\ Setters.path_segments_session true C04_CostPathDD.w_tab_url [Setters.PPush [46; 46]] = Some (C04_CostPathDD.w_tab_url, Setters.SOk)
  /\ psm_skips_c [46; 9; 46] = (true, 6)
  /\ C04_CostPathUp.dd_count true CPathSegmentSetter STSpecialNotFile 8 [46; 9; 46] [104;116;116;112;58;47;47;104;47;97;47;98;47] 13 [] true = 1.
Proof. exact C04_CostPathDD.push_tab_dotdot_fixed. Qed.
Check C04_push_tab_dotdot_fixed :
  Setters.path_segments_session true C04_CostPathDD.w_tab_url [Setters.PPush [46; 9; 46]] = Some (C04_CostPathDD.w_tab_url, Setters.SOk)
  /\ Setters.path_segments_session false C04_CostPathDD.w_tab_url [Setters.PPush [46; 9; 46]] = Some (C04_CostPathDD.w_tab_url, Setters.SOk)
  /\ Setters.path_segments_session true C04_CostPathDD.w_tab_url [Setters.PPush [46; 46]] = Some (C04_CostPathDD.w_tab_url, Setters.SOk)
  /\ psm_skips_c [46; 9; 46] = (true, 6)
  /\ C04_CostPathUp.dd_count true CPathSegmentSetter STSpecialNotFile 8 [46; 9; 46] [104;116;116;112;58;47;47;104;47;97;47;98;47] 13 [] true = 1.
Print Assumptions C04_push_tab_dotdot_fixed.

(* C04_reached_premises for the LARGEST reachability relation of the development: CReach3 (Proofs/C05_CompSteps3.v) =
   parse, join and all 19 mutators - the Url setters, path_segments_mut sessions, query_pairs_mut sessions and the
   quirks setters - each step outside the known classes (step_gate3: the frame hypotheses behind F-C02-2 / -4 / -8,
   F-C03-5, F-C06-5, stated on the pair of records).  Every such record satisfies wf_b and wfh, hence is a legal
   receiver of C04_no_panic_accessors / _setters / _setters2 / _quirks and of the rows of C04_no_panic_inventory that
   have these premises.  Hypotheses on the host functions: HostWf and IpDisp (Display writes an address as a non-empty
   text that does not start with ':' / '@'); C09 proves both of the host model. *)
Theorem C04_reached_premises_all : forall hp hpo hd, C03_ReachParts.HostWf hp hpo hd -> C05_CompSteps3.IpDisp hd ->
  forall dbg u, C05_CompSteps3.CReach3 dbg hp hpo hd u -> wf_b u = true /\ C06_Main.wfh u.
Proof. exact C04_Chain.creach3_wf. Qed.
Check C04_reached_premises_all : forall hp hpo hd, C03_ReachParts.HostWf hp hpo hd -> C05_CompSteps3.IpDisp hd ->
  forall dbg u, C05_CompSteps3.CReach3 dbg hp hpo hd u -> wf_b u = true /\ C06_Main.wfh u.
Print Assumptions C04_reached_premises_all.

From RU Require Proofs.C05_FinEx.
(* the hypotheses of C04_reached_premises_all have an instance, and a history through a quirks host setter exists in it *)
Example C04_reached_all_inhabited : C05_FinEx.fin_example_stmt.
Proof. exact C05_FinEx.fin_example. Qed.

(* ================================================================== the quadratic findings for every n, Url::check_invariants, Reachable3 *)
From RU Require Proofs.C04_CheckInv Proofs.C04_Reach3 Proofs.C04_Reach3Ex Proofs.C02_Reach Proofs.C02_Reach3
  Proofs.C02_SetHostCanon Proofs.C03_AuthEnd Proofs.C05_Parser Proofs.C05_Alphabet Proofs.C03_ReachFullEx.

(* finding F-C04-6 as a lower bound for EVERY n (induction: the k-th push("a") on file:/// runs the file fix-up of
   parse_path on a path of 2k + 2 bytes): C04_6_quadratic_statement in full *)
Theorem C04_6_quadratic : C04_6_quadratic_statement.
Proof. intros n. rewrite C04_CostPath.pushes_file_cost. lia. Qed.
Check C04_6_quadratic : forall n, N.of_nat n * N.of_nat n <= C04_CostPath.pushes_cost STFile 7 C04_CostPath.s_file_root n.
Print Assumptions C04_6_quadratic.

(* finding F-C04-9 as a lower bound by induction.  The family mime_distinct of C04_9_quadratic_statement writes its counter
   with at most 10 decimal digits (digits_rev with fuel 10): beyond n = 10^10 the names repeat and are rejected by
   contains(), so C04_9_quadratic_statement as written (ALL n) is not what the finding says and stays a Definition
   (no witness against it is computable).  Proved: (1) the statement for every n <= 10^10, with the input length
   <= 14 n + 3 (so cost >= |input|^2 / 400 or so on that range); (2) for EVERY n on the family mime_distinct_u whose
   counter has as many digits as needed (n digits of fuel; the two families agree, e.g. at n = 12). *)
Theorem C04_9_quadratic_partial :
  (forall n, N.of_nat n <= 10000000000 ->
     N.of_nat n * (N.of_nat n - 1) <= 2 * C04_CostMime.mime_parse_cost (C04_CostMime.mime_distinct n))
  /\ (forall n, nlen (C04_CostMime.mime_distinct n) <= 14 * N.of_nat n + 3)
  /\ (forall n, N.of_nat n * (N.of_nat n - 1) <= 2 * C04_CostMime.mime_parse_cost (C04_Quad.mime_distinct_u n))
  /\ C04_Quad.mime_distinct_u 12 = C04_CostMime.mime_distinct 12.
Proof.
  exact (conj C04_Quad.f_c04_9_upto (conj C04_Quad.mime_distinct_len (conj C04_Quad.f_c04_9_all_n C04_Quad.mime_distinct_u_12))).
Qed.
Check C04_9_quadratic_partial :
  (forall n, N.of_nat n <= 10000000000 ->
     N.of_nat n * (N.of_nat n - 1) <= 2 * C04_CostMime.mime_parse_cost (C04_CostMime.mime_distinct n))
  /\ (forall n, nlen (C04_CostMime.mime_distinct n) <= 14 * N.of_nat n + 3)
  /\ (forall n, N.of_nat n * (N.of_nat n - 1) <= 2 * C04_CostMime.mime_parse_cost (C04_Quad.mime_distinct_u n))
  /\ C04_Quad.mime_distinct_u 12 = C04_CostMime.mime_distinct 12.
Print Assumptions C04_9_quadratic_partial.

(* Url::check_invariants (lib.rs:686-808), the self-check of the anchors.  Proofs/C04_CheckInv.v is a hand transcription
   into a three-valued function (COk = Ok(()), CErr = Err(String): its assert! / assert_eq! are local Err-returning macros,
   CPanic: byte_at out of range, str slice out of range, port_str.parse::<u16>().expect, Url::parse(..).expect); the outcome
   of Url::parse(self.as_str()) is an argument.  On a record with wf_b and host_text_ok EVERY structural check (lines
   713-789) passes - wf_b is that part of check_invariants - except the comparison of the text of an IP host with its
   Display text (ip_text_ok, not recorded by wf_b: it gives Err, no panic).  So check_invariants panics EXACTLY when the
   structural part passes and the re-parse fails; it returns Ok(()) on a fixpoint of re-parsing with ip_text_ok; outside
   wf_b the structural part itself panics (empty serialization). *)
Theorem C04_check_invariants :
  (forall hd u other, wf_b u = true -> C06_Suffix.host_text_ok u -> (forall o, other = POk o -> wf_b o = true) ->
     (C04_CheckInv.check_invariants hd u other = C04_CheckInv.CPanic
      <-> (has_authority_b u && negb (C04_CheckInv.ip_text_ok hd u) = false /\ forall o, other <> POk o)))
  /\ (forall hd u, wf_b u = true -> C06_Suffix.host_text_ok u -> C04_CheckInv.ip_text_ok hd u = true ->
        C04_CheckInv.check_invariants hd u (POk u) = C04_CheckInv.COk)
  /\ (forall hd, C04_CheckInv.check_invariants hd (mkUrl [] 1 1 1 1 HI_None None 1 None None) (PErr EmptyHost)
                 = C04_CheckInv.CPanic).
Proof.
  exact (conj C04_CheckInv.check_invariants_panic_iff
        (conj C04_CheckInv.check_invariants_ok C04_CheckInv.check_invariants_panics_outside_wf)).
Qed.
Check C04_check_invariants :
  (forall hd u other, wf_b u = true -> C06_Suffix.host_text_ok u -> (forall o, other = POk o -> wf_b o = true) ->
     (C04_CheckInv.check_invariants hd u other = C04_CheckInv.CPanic
      <-> (has_authority_b u && negb (C04_CheckInv.ip_text_ok hd u) = false /\ forall o, other <> POk o)))
  /\ (forall hd u, wf_b u = true -> C06_Suffix.host_text_ok u -> C04_CheckInv.ip_text_ok hd u = true ->
        C04_CheckInv.check_invariants hd u (POk u) = C04_CheckInv.COk)
  /\ (forall hd, C04_CheckInv.check_invariants hd (mkUrl [] 1 1 1 1 HI_None None 1 None None) (PErr EmptyHost)
                 = C04_CheckInv.CPanic).
Print Assumptions C04_check_invariants.

(* the mutator theorems over C02's quantifier Reachable3 (parse and join of &str texts against any reached record, every
   call of the 19 mutators outside C02's known_step2, query_pairs_mut sessions): the hand premises wf_b / wfh of
   C04_no_panic_setters / _setters2 / _quirks are discharged by C03_reachability_full (hypotheses on the host functions as
   there; C03_reachability_full_model discharges them for the host model under IdnaOK).  The accessors and Position
   slicing of a reached record are C03_accessors_reachable.  NEW with respect to the wf_b theorems: Url::origin NEVER
   panics on a reached record (the class tuple_no_host_b of C04_origin_panic_iff is not reached: invariant HE), and
   Url::check_invariants panics exactly when its structural part passes and the re-parse fails - a reached record that is
   a fixpoint of re-parsing (C02: every record of ReachC4, C02_reach_partial4) with ip_text_ok gives Ok(()).  The two exact
   classes of the mutators (PathSegmentsMut::new's assertion, F-C04-1) stay as iff: psm_assert_fails is not excluded by
   inv03.  dbg = configuration of the history, dbg' = configuration of the call. *)
Theorem C04_no_panic_reachable3 : forall hp hpo hd, C03_ReachParts.HostWf hp hpo hd -> C02_SetHostCanon.host_nonempty hp hpo ->
  C03_AuthEnd.IpWf hd -> C05_Parser.HostOK hp hpo hd -> C05_Alphabet.IpOKv hd ->
  forall dbg u, C02_Reach3.Reachable3 dbg hp hpo hd u ->
  (wf_b u = true /\ C06_Main.wfh u /\ C04_Origin.tuple_no_host_b u = false)
  /\ forall dbg',
  ((forall f, exists u', Setters.set_fragment dbg' u f = Some u')
   /\ (forall q, C06_Main.str_arg_ok q -> exists u', Setters.set_query dbg' u q = Some u')
   /\ (forall p, C06_Main.port_arg_ok p -> exists r, Setters.set_port dbg' u p = Some r)
   /\ (forall pw, exists r, Setters.set_password dbg' u pw = Some r)
   /\ (forall un, exists r, Setters.set_username dbg' u un = Some r)
   /\ (forall s, exists r, Setters.set_scheme dbg' u s = Some r))
  /\ ((forall p, exists u', Setters.set_path dbg' u p = Some u')
      /\ (forall ops, Setters.path_segments_session dbg' u ops = None <-> dbg' = true /\ C04_SetPath.psm_assert_fails u = true)
      /\ (forall h, Setters.set_host dbg' hp hpo hd u h = None <-> dbg' = true /\ h = None /\ C04_SetHost.known_c04_1 u = true)
      /\ (forall h, exists r, Setters.set_ip_host dbg' hd u h = Some r)
      /\ (forall h op, exists u', Setters.set_host_internal dbg' hd u h op = Some u'))
  /\ ((forall v, exists r, Setters.q_set_protocol dbg' u v = Some r)
      /\ (forall v, exists r, Setters.q_set_username dbg' u v = Some r)
      /\ (forall v, exists r, Setters.q_set_password dbg' u v = Some r)
      /\ (forall v, exists r, Setters.q_set_host dbg' hp hpo hd u v = Some r)
      /\ (forall v, exists r, Setters.q_set_hostname dbg' hp hpo hd u v = Some r)
      /\ (forall v, exists r, Setters.q_set_port dbg' u v = Some r)
      /\ (forall v, exists u', Setters.q_set_pathname dbg' u v = Some u')
      /\ (forall v, usv_list v -> exists u', Setters.q_set_search dbg' u v = Some u')
      /\ (forall v, exists u', Setters.q_set_hash dbg' u v = Some u'))
  /\ (forall c, Origin.url_origin dbg' hp hpo hd c u <> Origin.OPanic /\ Origin.url_origin dbg' hp hpo hd c u <> Origin.OFuel)
  /\ (C04_CheckInv.check_invariants hd u (C02_Reach.reparse dbg' hp hpo hd u) = C04_CheckInv.CPanic
      <-> (has_authority_b u && negb (C04_CheckInv.ip_text_ok hd u) = false
           /\ forall o, C02_Reach.reparse dbg' hp hpo hd u <> POk o))
  /\ (C02_Reach.Fixpoint_of_reparse dbg' hp hpo hd u -> C04_CheckInv.ip_text_ok hd u = true ->
      C04_CheckInv.check_invariants hd u (C02_Reach.reparse dbg' hp hpo hd u) = C04_CheckInv.COk).
Proof.
  intros hp hpo hd H1 H2 H3 H4 H5 dbg u R.
  exact (conj (C04_Reach3.reach3_premises hp hpo hd H1 H2 H3 H4 H5 dbg u R)
              (C04_Reach3.reach3_no_panic hp hpo hd H1 H2 H3 H4 H5 dbg u R)).
Qed.
Check C04_no_panic_reachable3 : forall hp hpo hd, C03_ReachParts.HostWf hp hpo hd -> C02_SetHostCanon.host_nonempty hp hpo ->
  C03_AuthEnd.IpWf hd -> C05_Parser.HostOK hp hpo hd -> C05_Alphabet.IpOKv hd ->
  forall dbg u, C02_Reach3.Reachable3 dbg hp hpo hd u ->
  (wf_b u = true /\ C06_Main.wfh u /\ C04_Origin.tuple_no_host_b u = false)
  /\ forall dbg',
  ((forall f, exists u', Setters.set_fragment dbg' u f = Some u')
   /\ (forall q, C06_Main.str_arg_ok q -> exists u', Setters.set_query dbg' u q = Some u')
   /\ (forall p, C06_Main.port_arg_ok p -> exists r, Setters.set_port dbg' u p = Some r)
   /\ (forall pw, exists r, Setters.set_password dbg' u pw = Some r)
   /\ (forall un, exists r, Setters.set_username dbg' u un = Some r)
   /\ (forall s, exists r, Setters.set_scheme dbg' u s = Some r))
  /\ ((forall p, exists u', Setters.set_path dbg' u p = Some u')
      /\ (forall ops, Setters.path_segments_session dbg' u ops = None <-> dbg' = true /\ C04_SetPath.psm_assert_fails u = true)
      /\ (forall h, Setters.set_host dbg' hp hpo hd u h = None <-> dbg' = true /\ h = None /\ C04_SetHost.known_c04_1 u = true)
      /\ (forall h, exists r, Setters.set_ip_host dbg' hd u h = Some r)
      /\ (forall h op, exists u', Setters.set_host_internal dbg' hd u h op = Some u'))
  /\ ((forall v, exists r, Setters.q_set_protocol dbg' u v = Some r)
      /\ (forall v, exists r, Setters.q_set_username dbg' u v = Some r)
      /\ (forall v, exists r, Setters.q_set_password dbg' u v = Some r)
      /\ (forall v, exists r, Setters.q_set_host dbg' hp hpo hd u v = Some r)
      /\ (forall v, exists r, Setters.q_set_hostname dbg' hp hpo hd u v = Some r)
      /\ (forall v, exists r, Setters.q_set_port dbg' u v = Some r)
      /\ (forall v, exists u', Setters.q_set_pathname dbg' u v = Some u')
      /\ (forall v, usv_list v -> exists u', Setters.q_set_search dbg' u v = Some u')
      /\ (forall v, exists u', Setters.q_set_hash dbg' u v = Some u'))
  /\ (forall c, Origin.url_origin dbg' hp hpo hd c u <> Origin.OPanic /\ Origin.url_origin dbg' hp hpo hd c u <> Origin.OFuel)
  /\ (C04_CheckInv.check_invariants hd u (C02_Reach.reparse dbg' hp hpo hd u) = C04_CheckInv.CPanic
      <-> (has_authority_b u && negb (C04_CheckInv.ip_text_ok hd u) = false
           /\ forall o, C02_Reach.reparse dbg' hp hpo hd u <> POk o))
  /\ (C02_Reach.Fixpoint_of_reparse dbg' hp hpo hd u -> C04_CheckInv.ip_text_ok hd u = true ->
      C04_CheckInv.check_invariants hd u (C02_Reach.reparse dbg' hp hpo hd u) = C04_CheckInv.COk).
Print Assumptions C04_no_panic_reachable3.

(* non-vacuity: host functions meeting the five hypotheses (C03_ReachFullEx.ex3_full_hyps); "http://u:p@h:81/a?q#f" is reached
   by Url::parse, "http://u:p@h:81/x%20y?q#f" by set_path("/x y") on it; check_invariants computes to Ok(()) on both *)
Example C04_reachable3_inhabited :
  (C03_ReachParts.HostWf C03_ReachKnown.ex_hp3 C02_AuthMain.ex_hp C03_ReachEx.ex_hd2
   /\ C02_SetHostCanon.host_nonempty C03_ReachKnown.ex_hp3 C02_AuthMain.ex_hp /\ C03_AuthEnd.IpWf C03_ReachEx.ex_hd2
   /\ C05_Parser.HostOK C03_ReachKnown.ex_hp3 C02_AuthMain.ex_hp C03_ReachEx.ex_hd2 /\ C05_Alphabet.IpOKv C03_ReachEx.ex_hd2)
  /\ C04_Reach3Ex.reach3_ci_example_stmt.
Proof. exact (conj C03_ReachFullEx.ex3_full_hyps C04_Reach3Ex.reach3_ci_example). Qed.

(* the Punycode DECODER's main loop (Proofs/C04_CostPunyDec.v): the cost twin computes Punycode.dec_loop; L code units with m
   insertions already collected cost at most L (1 + m + L) + 1 steps (one per code unit, plus one per collected insertion
   at every decoded delta - the decode side of finding F-C04-10 for the public, uncapped functions); under the cap of
   2000 code units that uts46 applies before decoding: at most 2001 steps per code unit.  Not counted: the final
   sort_by_key (O(m log m) in Rust) and the Decode iterator (one step per output character). *)
From RU Require Proofs.C04_CostPunyDec.
Theorem C04_cost_punycode_decoder :
  (forall dbg it input mid p w k i len cp bias ins,
     fst (C04_CostPunyDec.dec_loop_c dbg it input mid p w k i len cp bias ins)
     = Punycode.dec_loop dbg it input mid p w k i len cp bias ins)
  /\ (forall dbg it input mid p w k i len cp bias ins,
        snd (C04_CostPunyDec.dec_loop_c dbg it input mid p w k i len cp bias ins)
        <= N.of_nat (length input) * (1 + N.of_nat (length ins) + N.of_nat (length input)) + 1)
  /\ (forall dbg it input len0, (length input <= 2000)%nat ->
        snd (C04_CostPunyDec.dec_loop_c dbg it input false 0 1 Punycode.BASE 0 len0 Punycode.INITIAL_N Punycode.INITIAL_BIAS [])
        <= 2001 * N.of_nat (length input) + 1).
Proof.
  exact (conj C04_CostPunyDec.dec_loop_c_fst (conj C04_CostPunyDec.dec_loop_c_le C04_CostPunyDec.dec_loop_c_capped)).
Qed.
Check C04_cost_punycode_decoder :
  (forall dbg it input mid p w k i len cp bias ins,
     fst (C04_CostPunyDec.dec_loop_c dbg it input mid p w k i len cp bias ins)
     = Punycode.dec_loop dbg it input mid p w k i len cp bias ins)
  /\ (forall dbg it input mid p w k i len cp bias ins,
        snd (C04_CostPunyDec.dec_loop_c dbg it input mid p w k i len cp bias ins)
        <= N.of_nat (length input) * (1 + N.of_nat (length ins) + N.of_nat (length input)) + 1)
  /\ (forall dbg it input len0, (length input <= 2000)%nat ->
        snd (C04_CostPunyDec.dec_loop_c dbg it input false 0 1 Punycode.BASE 0 len0 Punycode.INITIAL_N Punycode.INITIAL_BIAS [])
        <= 2001 * N.of_nat (length input) + 1).
Print Assumptions C04_cost_punycode_decoder.

(* ================================================================== Url::check_invariants on reached records *)
From RU Require Proofs.C04_CheckReach Proofs.C02_Hist Proofs.C02_HistInst Proofs.C02_Reach4 Proofs.C02_Reach5 Proofs.C03_ReachFinEx Proofs.C09_Host.

(* Url::check_invariants WITHOUT the premise ip_text_ok (Proofs/C04_CheckReach.v).  ip_text_ok hd u is the boolean form of
   C03's host text invariant KT (C03_host_text_parse: every record parse_url returns; C03_views_reachable: every Reachable3
   record).  (1) a fixpoint of re-parsing IS a parse result, so under HostWf alone check_invariants returns Ok(()) on every
   fixpoint; (2) every record of C02's ReachC4 (C02_reach_partial4: fixpoint of re-parsing; hypotheses of C02) satisfies
   ip_text_ok and check_invariants returns Ok(()) in both configurations of the history; (3) on a Reachable3 record
   (hypotheses of C04_no_panic_reachable3) ip_text_ok holds, so check_invariants panics EXACTLY when the re-parse of the
   serialization fails (C02's known classes) and returns Ok(()) on every fixpoint. *)
Theorem C04_check_invariants_reach :
  (forall dbg hp hpo hd u, C03_ReachParts.HostWf hp hpo hd -> C02_Reach.Fixpoint_of_reparse dbg hp hpo hd u ->
     C04_CheckInv.check_invariants hd u (C02_Reach.reparse dbg hp hpo hd u) = C04_CheckInv.COk)
  /\ (forall dbg hp hpo hd, C02_Hist.HostOK2 hp hpo hd -> C02_SetHostCanon.host_nonempty hp hpo ->
      forall u, C02_Reach5.ReachC4 dbg hp hpo hd u ->
      C04_CheckInv.ip_text_ok hd u = true
      /\ C04_CheckInv.check_invariants hd u (C02_Reach.reparse dbg hp hpo hd u) = C04_CheckInv.COk)
  /\ (forall hp hpo hd, C03_ReachParts.HostWf hp hpo hd -> C02_SetHostCanon.host_nonempty hp hpo ->
      C03_AuthEnd.IpWf hd -> C05_Parser.HostOK hp hpo hd -> C05_Alphabet.IpOKv hd ->
      forall dbg u, C02_Reach3.Reachable3 dbg hp hpo hd u ->
      C04_CheckInv.ip_text_ok hd u = true
      /\ forall dbg',
         (C04_CheckInv.check_invariants hd u (C02_Reach.reparse dbg' hp hpo hd u) = C04_CheckInv.CPanic
          <-> forall o, C02_Reach.reparse dbg' hp hpo hd u <> POk o)
         /\ (C02_Reach.Fixpoint_of_reparse dbg' hp hpo hd u ->
             C04_CheckInv.check_invariants hd u (C02_Reach.reparse dbg' hp hpo hd u) = C04_CheckInv.COk)).
Proof.
  split; [intros dbg hp hpo hd u HW F; exact (C04_CheckReach.check_invariants_fix hp hpo hd dbg u HW F)|].
  split; [intros dbg hp hpo hd H1 H2 u R; exact (C04_CheckReach.check_invariants_reach hp hpo hd dbg H1 H2 u R)|].
  intros hp hpo hd H1 H2 H3 H4 H5 dbg u R.
  exact (conj (C04_CheckReach.reach3_ip_text_ok hp hpo hd H1 H2 H3 H4 H5 dbg u R)
              (C04_CheckReach.check_invariants_reach3 hp hpo hd H1 H2 H3 H4 H5 dbg u R)).
Qed.
Check C04_check_invariants_reach :
  (forall dbg hp hpo hd u, C03_ReachParts.HostWf hp hpo hd -> C02_Reach.Fixpoint_of_reparse dbg hp hpo hd u ->
     C04_CheckInv.check_invariants hd u (C02_Reach.reparse dbg hp hpo hd u) = C04_CheckInv.COk)
  /\ (forall dbg hp hpo hd, C02_Hist.HostOK2 hp hpo hd -> C02_SetHostCanon.host_nonempty hp hpo ->
      forall u, C02_Reach5.ReachC4 dbg hp hpo hd u ->
      C04_CheckInv.ip_text_ok hd u = true
      /\ C04_CheckInv.check_invariants hd u (C02_Reach.reparse dbg hp hpo hd u) = C04_CheckInv.COk)
  /\ (forall hp hpo hd, C03_ReachParts.HostWf hp hpo hd -> C02_SetHostCanon.host_nonempty hp hpo ->
      C03_AuthEnd.IpWf hd -> C05_Parser.HostOK hp hpo hd -> C05_Alphabet.IpOKv hd ->
      forall dbg u, C02_Reach3.Reachable3 dbg hp hpo hd u ->
      C04_CheckInv.ip_text_ok hd u = true
      /\ forall dbg',
         (C04_CheckInv.check_invariants hd u (C02_Reach.reparse dbg' hp hpo hd u) = C04_CheckInv.CPanic
          <-> forall o, C02_Reach.reparse dbg' hp hpo hd u <> POk o)
         /\ (C02_Reach.Fixpoint_of_reparse dbg' hp hpo hd u ->
             C04_CheckInv.check_invariants hd u (C02_Reach.reparse dbg' hp hpo hd u) = C04_CheckInv.COk)).
Print Assumptions C04_check_invariants_reach.

(* with the host MODEL: the only premise is IdnaOK idna *)
Theorem C04_check_invariants_reach_model : forall dbg idna, C09_Host.IdnaOK idna ->
  forall u, C02_Reach5.ReachC4 dbg (Host.host_parse idna) Host.host_parse_opaque Host.host_display u ->
  C04_CheckInv.check_invariants Host.host_display u
    (C02_Reach.reparse dbg (Host.host_parse idna) Host.host_parse_opaque Host.host_display u) = C04_CheckInv.COk.
Proof.
  intros dbg idna OK u R.
  exact (proj2 (C04_CheckReach.check_invariants_reach _ _ _ dbg (C02_HistInst.HostOK2_model idna OK)
                  (C02_Reach4.host_nonempty_model idna) u R)).
Qed.
Check C04_check_invariants_reach_model : forall dbg idna, C09_Host.IdnaOK idna ->
  forall u, C02_Reach5.ReachC4 dbg (Host.host_parse idna) Host.host_parse_opaque Host.host_display u ->
  C04_CheckInv.check_invariants Host.host_display u
    (C02_Reach.reparse dbg (Host.host_parse idna) Host.host_parse_opaque Host.host_display u) = C04_CheckInv.COk.
Print Assumptions C04_check_invariants_reach_model.

(* non-vacuity: the hypotheses hold for the host model with the oracle idna_clean, and ReachC4 contains a record with an
   IPv6 host: "http://[::1]:81/p?k=v" (C03_round_trips_reach_inhabited) *)
Example C04_check_invariants_reach_inhabited :
  (C02_Hist.HostOK2 C03_ReachFinEx.mhp0 Host.host_parse_opaque Host.host_display
   /\ C02_SetHostCanon.host_nonempty C03_ReachFinEx.mhp0 Host.host_parse_opaque)
  /\ C03_ReachFinEx.reachc4_example_stmt.
Proof. exact (conj C03_ReachFinEx.reachfin_hyps C03_ReachFinEx.reachc4_example). Qed.

From RU Require Proofs.C03_InvSP Proofs.C03_InvSPReach.

(* C04_no_panic_reachable3 with its two remaining conditional clauses closed.  (a) path_segments_mut sessions: the class
   psm_assert_fails (PathSegmentsMut::new's debug assertion: special scheme and the byte at path_start is not '/') is NOT
   reached - SP u := special scheme -> the byte at path_start is '/' is an invariant of Parser::parse_url (every arm, file
   states included: C03_special_path_parse) and of every step of the 19 mutators outside excl03 (C03_special_path_step),
   hence of Reachable3 - so sessions NEVER panic on a reached record, in either configuration.  (b) check_invariants:
   ip_text_ok is a consequence of C03's invariant KT (C04_check_invariants_reach), so it panics exactly when the re-parse
   fails and returns Ok(()) on every fixpoint of re-parsing.  What stays an iff: set_host(None) (finding F-C04-1,
   known_c04_1: a record whose path is empty behind an authority, e.g. "a://h?q" - reached by parsing). *)
Theorem C04_no_panic_reachable3b : forall hp hpo hd, C03_ReachParts.HostWf hp hpo hd -> C02_SetHostCanon.host_nonempty hp hpo ->
  C03_AuthEnd.IpWf hd -> C05_Parser.HostOK hp hpo hd -> C05_Alphabet.IpOKv hd ->
  forall dbg u, C02_Reach3.Reachable3 dbg hp hpo hd u ->
  (wf_b u = true /\ C06_Main.wfh u /\ C04_Origin.tuple_no_host_b u = false
   /\ C03_InvSP.SP u /\ C04_SetPath.psm_assert_fails u = false /\ C04_CheckInv.ip_text_ok hd u = true)
  /\ forall dbg',
  ((forall f, exists u', Setters.set_fragment dbg' u f = Some u')
   /\ (forall q, C06_Main.str_arg_ok q -> exists u', Setters.set_query dbg' u q = Some u')
   /\ (forall p, C06_Main.port_arg_ok p -> exists r, Setters.set_port dbg' u p = Some r)
   /\ (forall pw, exists r, Setters.set_password dbg' u pw = Some r)
   /\ (forall un, exists r, Setters.set_username dbg' u un = Some r)
   /\ (forall s, exists r, Setters.set_scheme dbg' u s = Some r))
  /\ ((forall p, exists u', Setters.set_path dbg' u p = Some u')
      /\ (forall ops, exists r, Setters.path_segments_session dbg' u ops = Some r)
      /\ (forall h, Setters.set_host dbg' hp hpo hd u h = None <-> dbg' = true /\ h = None /\ C04_SetHost.known_c04_1 u = true)
      /\ (forall h, exists r, Setters.set_ip_host dbg' hd u h = Some r)
      /\ (forall h op, exists u', Setters.set_host_internal dbg' hd u h op = Some u'))
  /\ ((forall v, exists r, Setters.q_set_protocol dbg' u v = Some r)
      /\ (forall v, exists r, Setters.q_set_username dbg' u v = Some r)
      /\ (forall v, exists r, Setters.q_set_password dbg' u v = Some r)
      /\ (forall v, exists r, Setters.q_set_host dbg' hp hpo hd u v = Some r)
      /\ (forall v, exists r, Setters.q_set_hostname dbg' hp hpo hd u v = Some r)
      /\ (forall v, exists r, Setters.q_set_port dbg' u v = Some r)
      /\ (forall v, exists u', Setters.q_set_pathname dbg' u v = Some u')
      /\ (forall v, usv_list v -> exists u', Setters.q_set_search dbg' u v = Some u')
      /\ (forall v, exists u', Setters.q_set_hash dbg' u v = Some u'))
  /\ (forall c, Origin.url_origin dbg' hp hpo hd c u <> Origin.OPanic /\ Origin.url_origin dbg' hp hpo hd c u <> Origin.OFuel)
  /\ (C04_CheckInv.check_invariants hd u (C02_Reach.reparse dbg' hp hpo hd u) = C04_CheckInv.CPanic
      <-> forall o, C02_Reach.reparse dbg' hp hpo hd u <> POk o)
  /\ (C02_Reach.Fixpoint_of_reparse dbg' hp hpo hd u ->
      C04_CheckInv.check_invariants hd u (C02_Reach.reparse dbg' hp hpo hd u) = C04_CheckInv.COk).
Proof.
  intros hp hpo hd H1 H2 H3 H4 H5 dbg u R.
  destruct (C04_Reach3.reach3_premises hp hpo hd H1 H2 H3 H4 H5 dbg u R) as (P1 & P2 & P3).
  destruct (C03_InvSPReach.reach3_psm_assert dbg hp hpo hd H1 H2 H3 H4 H5 u R) as [S F].
  pose proof (C04_CheckReach.reach3_ip_text_ok hp hpo hd H1 H2 H3 H4 H5 dbg u R) as I3.
  split; [exact (conj P1 (conj P2 (conj P3 (conj S (conj F I3)))))|].
  intros dbg'.
  destruct (C04_Reach3.reach3_no_panic hp hpo hd H1 H2 H3 H4 H5 dbg u R dbg') as (A & (B1 & _ & B3 & B4 & B5) & C & D & _ & _).
  destruct (C04_CheckReach.check_invariants_reach3 hp hpo hd H1 H2 H3 H4 H5 dbg u R dbg') as [E1 E2].
  split; [exact A|]. split.
  - split; [exact B1|]. split; [|exact (conj B3 (conj B4 B5))].
    intros ops. exact (proj2 (C04_Reach3.reach3_sessions_total hp hpo hd H1 H2 H3 H4 H5 dbg u R) dbg' ops).
  - exact (conj C (conj D (conj E1 E2))).
Qed.
Check C04_no_panic_reachable3b : forall hp hpo hd, C03_ReachParts.HostWf hp hpo hd -> C02_SetHostCanon.host_nonempty hp hpo ->
  C03_AuthEnd.IpWf hd -> C05_Parser.HostOK hp hpo hd -> C05_Alphabet.IpOKv hd ->
  forall dbg u, C02_Reach3.Reachable3 dbg hp hpo hd u ->
  (wf_b u = true /\ C06_Main.wfh u /\ C04_Origin.tuple_no_host_b u = false
   /\ C03_InvSP.SP u /\ C04_SetPath.psm_assert_fails u = false /\ C04_CheckInv.ip_text_ok hd u = true)
  /\ forall dbg',
  ((forall f, exists u', Setters.set_fragment dbg' u f = Some u')
   /\ (forall q, C06_Main.str_arg_ok q -> exists u', Setters.set_query dbg' u q = Some u')
   /\ (forall p, C06_Main.port_arg_ok p -> exists r, Setters.set_port dbg' u p = Some r)
   /\ (forall pw, exists r, Setters.set_password dbg' u pw = Some r)
   /\ (forall un, exists r, Setters.set_username dbg' u un = Some r)
   /\ (forall s, exists r, Setters.set_scheme dbg' u s = Some r))
  /\ ((forall p, exists u', Setters.set_path dbg' u p = Some u')
      /\ (forall ops, exists r, Setters.path_segments_session dbg' u ops = Some r)
      /\ (forall h, Setters.set_host dbg' hp hpo hd u h = None <-> dbg' = true /\ h = None /\ C04_SetHost.known_c04_1 u = true)
      /\ (forall h, exists r, Setters.set_ip_host dbg' hd u h = Some r)
      /\ (forall h op, exists u', Setters.set_host_internal dbg' hd u h op = Some u'))
  /\ ((forall v, exists r, Setters.q_set_protocol dbg' u v = Some r)
      /\ (forall v, exists r, Setters.q_set_username dbg' u v = Some r)
      /\ (forall v, exists r, Setters.q_set_password dbg' u v = Some r)
      /\ (forall v, exists r, Setters.q_set_host dbg' hp hpo hd u v = Some r)
      /\ (forall v, exists r, Setters.q_set_hostname dbg' hp hpo hd u v = Some r)
      /\ (forall v, exists r, Setters.q_set_port dbg' u v = Some r)
      /\ (forall v, exists u', Setters.q_set_pathname dbg' u v = Some u')
      /\ (forall v, usv_list v -> exists u', Setters.q_set_search dbg' u v = Some u')
      /\ (forall v, exists u', Setters.q_set_hash dbg' u v = Some u'))
  /\ (forall c, Origin.url_origin dbg' hp hpo hd c u <> Origin.OPanic /\ Origin.url_origin dbg' hp hpo hd c u <> Origin.OFuel)
  /\ (C04_CheckInv.check_invariants hd u (C02_Reach.reparse dbg' hp hpo hd u) = C04_CheckInv.CPanic
      <-> forall o, C02_Reach.reparse dbg' hp hpo hd u <> POk o)
  /\ (C02_Reach.Fixpoint_of_reparse dbg' hp hpo hd u ->
      C04_CheckInv.check_invariants hd u (C02_Reach.reparse dbg' hp hpo hd u) = C04_CheckInv.COk).
Print Assumptions C04_no_panic_reachable3b.

(* non-vacuity: the hypotheses and a history are those of C04_reachable3_inhabited ("http://u:p@h:81/a?q#f" reached by
   Url::parse, a special URL: SP says its byte at path_start is '/'); the excluded class itself is inhabited among wf_b
   records (C04_psm_witness: "http://h" with an empty path) - it is the history that excludes it, not well-formedness *)
Example C04_reachable3b_inhabited :
  (C03_ReachParts.HostWf C03_ReachKnown.ex_hp3 C02_AuthMain.ex_hp C03_ReachEx.ex_hd2
   /\ C02_SetHostCanon.host_nonempty C03_ReachKnown.ex_hp3 C02_AuthMain.ex_hp /\ C03_AuthEnd.IpWf C03_ReachEx.ex_hd2
   /\ C05_Parser.HostOK C03_ReachKnown.ex_hp3 C02_AuthMain.ex_hp C03_ReachEx.ex_hd2 /\ C05_Alphabet.IpOKv C03_ReachEx.ex_hd2)
  /\ C04_Reach3Ex.reach3_ci_example_stmt
  /\ (wf_b C04_SetPath.psm_w = true /\ C04_SetPath.psm_assert_fails C04_SetPath.psm_w = true).
Proof.
  split; [exact C03_ReachFullEx.ex3_full_hyps|]. split; [exact C04_Reach3Ex.reach3_ci_example|].
  destruct C04_SetPath.psm_witness as (A & B & _). exact (conj A B).
Qed.

(* ================================================================== the inventory with a claim on every row, the remaining cost statements *)
From RU Require Proofs.C04_Table2.

(* THE INVENTORY TABLE WITH REAL CLAIMS ON ROWS THAT CARRIED THE TRIVIAL ONE (Proofs/C04_Table2.v).
   C04_no_panic_inventory left 54 of the 167 rows with the claim True (KByType / KDocumented / KHarness).  C04_Table2.table2
   is computed from C04_Table.table and the list C04_Table2.overrides: 21 of the KByType rows - every one whose function
   has a Gallina model about which something can be stated - now carry a claim on that model (kind KRange), proved from
   the existing totality / cost / UTF-8 theorems:
     parser::to_u32 (no panic; Ok exactly below 2^32, ParseError::Overflow above), parser::default_port (a u16),
     Input::new_no_trim / new_trim_tab_and_newlines / new_trim_c0_control_and_space / is_empty / split_prefix (what they
     return is a &str again: scalar values), Parser::parse_scheme (scheme a-z 0-9 + - ., the remaining input a suffix and a
     &str), Parser::file_host (slices in range, 2 steps per character, no panic outcome of its two callers for any host
     parser), Parser::parse_query / parse_fragment / parse_cannot_be_a_base_path (cost twins, 13n+1),
     percent_decode / percent_decode_str / PercentDecode::decode_utf8 / decode_utf8_lossy (3 steps per byte, output not
     longer than the input, the String of the lossy view is scalar values, the reused Vec is valid UTF-8),
     AsciiSet::union / complement (the words stay u32 values; membership is the set operation),
     Serializer::new (position 0 is in range and a character boundary: ANY session of well-formed operations on ANY target
     ends in Ok - neither the documented for_suffix panic nor F-C15-1 can occur),
     FragmentIdentifier::to_percent_encoded (ASCII), Mime::get_parameter (exactly the parameter pairs of a parse result).
     (1) the key columns of table2 ARE the regenerated inventory T_C04_API;
     (2) every claim holds (the 37 old ones and the 11 new ones), hence the claim of every row;
     (3) every override names exactly one row of the old table, a KByType row with the trivial claim, and its new claim
         is not the trivial one;
     (4) the rows that are not overridden keep kind and pinned theorem;
     (5) exactly the rows of kind K KByType / K KDocumented / K KHarness carry the trivial claim;
     (6) census: 76 KTheorem, 20 KExact, 17 KOutside, 21 KRange, 27 KByType (constructors, field reads, matches on an enum:
         ParseOptions::base_url / encoding_override, Url::options / as_str / into_string / has_host / port, Host::to_owned,
         Origin::is_tuple / ascii_serialization, SyntaxViolation::description, SchemeType::is_special / is_file,
         Parser::for_setter, parser::ascii_alpha / is_windows_drive_letter, quirks::internal_components / href, Idna::new,
         the four Config builders, Uts46::new, Serializer::encoding_override, DataUrl::mime_type, Decoder::new),
         2 KDocumented, 4 KHarness: 33 rows with the trivial claim instead of 54. *)
Theorem C04_no_panic_inventory2 :
  map C04_Table2.row2_key C04_Table2.table2 = T_C04_API
  /\ ((forall q, C04_Table2.claim2 q)
      /\ Forall (fun r => C04_Table2.claim2 (C04_Table2.r2_claim r)) C04_Table2.table2)
  /\ C04_Table2.overrides_sound_b = true
  /\ C04_Table2.table2_keeps_b = true
  /\ C04_Table2.kinds2_consistent_b = true
  /\ (length C04_Table2.table2 = 167%nat /\ length C04_Table2.overrides = 21%nat
      /\ C04_Table2.count_kind2 (C04_Table2.K C04_Table.KTheorem) = 76%nat
      /\ C04_Table2.count_kind2 (C04_Table2.K C04_Table.KExact) = 20%nat
      /\ C04_Table2.count_kind2 (C04_Table2.K C04_Table.KOutside) = 17%nat
      /\ C04_Table2.count_kind2 C04_Table2.KRange = 21%nat
      /\ C04_Table2.count_kind2 (C04_Table2.K C04_Table.KByType) = 27%nat
      /\ C04_Table2.count_kind2 (C04_Table2.K C04_Table.KDocumented) = 2%nat
      /\ C04_Table2.count_kind2 (C04_Table2.K C04_Table.KHarness) = 4%nat).
Proof.
  exact (conj C04_Table2.table2_complete (conj (conj C04_Table2.claims2_hold C04_Table2.table2_sound)
        (conj C04_Table2.overrides_sound (conj C04_Table2.table2_keeps (conj C04_Table2.kinds2_consistent
        C04_Table2.table2_counts))))).
Qed.
Check C04_no_panic_inventory2 :
  map C04_Table2.row2_key C04_Table2.table2 = T_C04_API
  /\ ((forall q, C04_Table2.claim2 q)
      /\ Forall (fun r => C04_Table2.claim2 (C04_Table2.r2_claim r)) C04_Table2.table2)
  /\ C04_Table2.overrides_sound_b = true
  /\ C04_Table2.table2_keeps_b = true
  /\ C04_Table2.kinds2_consistent_b = true
  /\ (length C04_Table2.table2 = 167%nat /\ length C04_Table2.overrides = 21%nat
      /\ C04_Table2.count_kind2 (C04_Table2.K C04_Table.KTheorem) = 76%nat
      /\ C04_Table2.count_kind2 (C04_Table2.K C04_Table.KExact) = 20%nat
      /\ C04_Table2.count_kind2 (C04_Table2.K C04_Table.KOutside) = 17%nat
      /\ C04_Table2.count_kind2 C04_Table2.KRange = 21%nat
      /\ C04_Table2.count_kind2 (C04_Table2.K C04_Table.KByType) = 27%nat
      /\ C04_Table2.count_kind2 (C04_Table2.K C04_Table.KDocumented) = 2%nat
      /\ C04_Table2.count_kind2 (C04_Table2.K C04_Table.KHarness) = 4%nat).
Print Assumptions C04_no_panic_inventory2.

(* non-vacuity of the new claims: concrete values *)
Example C04_inventory2_instances :
  to_u32 4294967295 = POk 4294967295 /\ to_u32 4294967296 = PErr Overflow
  /\ default_port s_https = Some 443
  /\ aset_wf (aset_complement T_PATH_SEGMENT) /\ aset_wf (aset_union T_PATH_SEGMENT T_FRAGMENT)
  /\ DataUrl.to_percent_encoded [97; 9; 32; 233; 60] = [97; 37; 50; 48; 37; 69; 57; 37; 51; 67]
  /\ file_host [104; 9; 111; 47; 120] = ([104; 111], [47; 120])
  /\ parse_scheme CUrlParser [72; 116; 9; 84; 80; 58; 47] = Some ([104; 116; 116; 112], [47])
  /\ inp_split_prefix_str [47; 47] [9; 47; 10; 47; 120] = Some [120]
  /\ snd (FormUrlencoded.decode_utf8_lossy (pd_cow [37; 70; 70; 97])) = [65533; 97].
Proof. vm_compute. repeat split; try reflexivity; intros H; discriminate H. Qed.

(* FINDING F-C04-9 ON THE REPAIRED FAMILY, FOR EVERY n (Proofs/C04_Quad2.v).  C04_9_quadratic_statement speaks of the family
   mime_distinct, whose counter has 10 digits of fuel: above n = 10^10 its names repeat, so that statement is not what the
   finding says (superseded, kept as a Definition; proved up to 10^10 in C04_9_quadratic_partial).  mime_distinct2 is the
   family the finding describes - "a/b" followed by ";p0=1;p1=1;...;p<n-1>=1", every counter written with as many decimal
   digits as it needs - and C04_9_quadratic_statement2 is the statement for it. *)
From RU Require Proofs.C04_Quad2.
Definition C04_9_quadratic_statement2 : Prop :=
  forall n, N.of_nat n * (N.of_nat n - 1) <= 2 * C04_CostMime.mime_parse_cost (C04_Quad2.mime_distinct2 n).

Theorem C04_9_quadratic : C04_9_quadratic_statement2.
Proof. exact C04_Quad2.f_c04_9_all_n2. Qed.
Check C04_9_quadratic : forall n, N.of_nat n * (N.of_nat n - 1) <= 2 * C04_CostMime.mime_parse_cost (C04_Quad2.mime_distinct2 n).
Print Assumptions C04_9_quadratic.

(* the repaired family: it IS the old one up to 10^10 parameters, it is the member of every bounded-counter family with
   enough digits, it consists of &str values, and it is short - F + 5 bytes per parameter while n <= 10^(F+1), i.e.
   |input| = O(n log n) *)
Theorem C04_9_family :
  (forall n, N.of_nat n <= 10000000000 -> C04_Quad2.mime_distinct2 n = C04_CostMime.mime_distinct n)
  /\ (forall F n, N.of_nat n <= 10 ^ N.of_nat (S F) -> C04_Quad2.mime_distinct2 n = C04_Quad.mime_distinct_f (S F) n)
  /\ (forall n, usv_list (C04_Quad2.mime_distinct2 n))
  /\ (forall F n, N.of_nat n <= 10 ^ N.of_nat (S F) ->
        nlen (C04_Quad2.mime_distinct2 n) <= (N.of_nat (S F) + 4) * N.of_nat n + 3).
Proof.
  exact (conj C04_Quad2.mime_distinct2_old (conj C04_Quad2.mime_distinct2_family
        (conj C04_Quad2.mime_distinct2_usv C04_Quad2.mime_distinct2_len))).
Qed.
Check C04_9_family :
  (forall n, N.of_nat n <= 10000000000 -> C04_Quad2.mime_distinct2 n = C04_CostMime.mime_distinct n)
  /\ (forall F n, N.of_nat n <= 10 ^ N.of_nat (S F) -> C04_Quad2.mime_distinct2 n = C04_Quad.mime_distinct_f (S F) n)
  /\ (forall n, usv_list (C04_Quad2.mime_distinct2 n))
  /\ (forall F n, N.of_nat n <= 10 ^ N.of_nat (S F) ->
        nlen (C04_Quad2.mime_distinct2 n) <= (N.of_nat (S F) + 4) * N.of_nat n + 3).
Print Assumptions C04_9_family.

(* hence NO linear bound a * |input| + b holds for Mime::from_str in the cost model: for every a, b a &str of the family
   costs more (the counterpart of C04_8_refuted for the path state; the matching upper bound is C04_cost_mime:
   (14 + P)(n + 1) + 4 with P the number of parameters) *)
Theorem C04_9_refuted : forall a b : N, exists s, usv_list s /\ a * nlen s + b < C04_CostMime.mime_parse_cost s.
Proof. exact C04_Quad2.f_c04_9_no_linear. Qed.
Check C04_9_refuted : forall a b : N, exists s, usv_list s /\ a * nlen s + b < C04_CostMime.mime_parse_cost s.
Print Assumptions C04_9_refuted.

(* the family at n = 12: the text, that it parses to 12 parameters, and its cost *)
Example C04_9_family_instance :
  C04_Quad2.mime_distinct2 3 = [97; 47; 98; 59; 112; 48; 61; 49; 59; 112; 49; 61; 49; 59; 112; 50; 61; 49]
  /\ C04_CostMime.n_params (C04_Quad2.mime_distinct2 12) = 12
  /\ 12 * 11 <= 2 * C04_CostMime.mime_parse_cost (C04_Quad2.mime_distinct2 12).
Proof. vm_compute. repeat split; intros H; discriminate H. Qed.

(* COST OF THE HEADER PRE-PARSER OF DataUrl::process (Proofs/C04_CostData.v; cost semantics of Model/Cost.v: one step per
   element examined by a scan or loop, per String::push, slice or literal comparison; push_str of x = nlen x).  The step
   counts follow the data flow of the model functions of Model/DataUrl.v (pretend_parse_data_url,
   find_comma_before_fragment, parse_header, remove_base64_suffix) on the UTF-8 bytes of the argument:
     (1) everything except Mime::from_str costs at most 13 |input| + 31 steps, for EVERY byte input;
     (2) the String handed to Mime::from_str (header_text) has at most 3 |input| + 10 bytes and is a &str;
     (3) it IS the string the model parses: the MIME type of every DataUrl returned is its parse result or the fallback;
     (4) the whole: 13 |input| + 31 + (14 + P)(3 |input| + 11) + 4 when the header parses to a MIME type with P
         parameters - linear for a bounded number of parameters; the product term is finding F-C04-9 (C04_9_quadratic,
         C04_9_refuted) reaching DataUrl::process through its MIME header;
     (5) inputs that do not reach Mime::from_str (not a data: URL, no comma): 13 |input| + 31.
   The body decoders are C04_cost_base64 / C04_cost_percent_encoding. *)
From RU Require Proofs.C04_CostData.
Theorem C04_cost_data_url : forall input, bytes input ->
  C04_CostData.scan_cost input <= 13 * nlen input + 31
  /\ (forall hs, C04_CostData.header_text input = Some hs -> nlen hs <= 3 * nlen input + 10 /\ usv_list hs)
  /\ (forall d, DataUrl.process_bytes input = Mime.Ok (inl d) ->
        exists hs parsed, C04_CostData.header_text input = Some hs /\ Mime.from_str hs = Mime.Ok parsed
          /\ DataUrl.du_mime_type d = match parsed with Some m => m | None => DataUrl.fallback_mime end)
  /\ (forall hs m, C04_CostData.header_text input = Some hs -> Mime.parse hs = Mime.Ok (Some m) ->
        C04_CostData.process_cost input
        <= 13 * nlen input + 31 + (14 + C04_CostMime.plen (Mime.m_params m)) * (3 * nlen input + 11) + 4)
  /\ (C04_CostData.header_text input = None -> C04_CostData.process_cost input <= 13 * nlen input + 31).
Proof.
  intros input Hb. split; [exact (C04_CostData.scan_cost_linear input)|]. split.
  - intros hs H. exact (conj (C04_CostData.header_text_len input hs H) (C04_CostData.header_text_usv input hs Hb H)).
  - split; [exact (C04_CostData.header_text_model input)|]. split.
    + intros hs m H1 H2. exact (C04_CostData.process_cost_linear input hs m Hb H1 H2).
    + exact (C04_CostData.process_cost_no_header input).
Qed.
Check C04_cost_data_url : forall input, bytes input ->
  C04_CostData.scan_cost input <= 13 * nlen input + 31
  /\ (forall hs, C04_CostData.header_text input = Some hs -> nlen hs <= 3 * nlen input + 10 /\ usv_list hs)
  /\ (forall d, DataUrl.process_bytes input = Mime.Ok (inl d) ->
        exists hs parsed, C04_CostData.header_text input = Some hs /\ Mime.from_str hs = Mime.Ok parsed
          /\ DataUrl.du_mime_type d = match parsed with Some m => m | None => DataUrl.fallback_mime end)
  /\ (forall hs m, C04_CostData.header_text input = Some hs -> Mime.parse hs = Mime.Ok (Some m) ->
        C04_CostData.process_cost input
        <= 13 * nlen input + 31 + (14 + C04_CostMime.plen (Mime.m_params m)) * (3 * nlen input + 11) + 4)
  /\ (C04_CostData.header_text input = None -> C04_CostData.process_cost input <= 13 * nlen input + 31).
Print Assumptions C04_cost_data_url.

(* " dAta:;a=1; base64,eHg#f" : the header text is "text/plain;a=1" (prefix added, base64 suffix removed), it parses to
   one parameter, and the step count of the whole pre-parser is 163 on these 24 bytes (54 without Mime::from_str) *)
Example C04_cost_data_url_instance :
  let input := [32; 100; 65; 116; 97; 58; 59; 97; 61; 49; 59; 32; 98; 97; 115; 101; 54; 52; 44; 101; 72; 103; 35; 102] in
  C04_CostData.header_text input = Some [116; 101; 120; 116; 47; 112; 108; 97; 105; 110; 59; 97; 61; 49]
  /\ (exists m, Mime.parse [116; 101; 120; 116; 47; 112; 108; 97; 105; 110; 59; 97; 61; 49] = Mime.Ok (Some m)
                /\ C04_CostMime.plen (Mime.m_params m) = 1)
  /\ C04_CostData.scan_cost input = 54 /\ C04_CostData.process_cost input = 163.
Proof.
  cbv zeta. split; [vm_compute; reflexivity|]. split.
  - eexists. split; vm_compute; reflexivity.
  - split; vm_compute; reflexivity.
Qed.

(* COST OF Url::make_relative (Proofs/C04_CostRel.v; model Model/MakeRelative.v; cost semantics of Model/Cost.v: rfind is a
   reverse search, a split('/') iterator examines every byte of its text once, slice equality compares the lengths and
   then at most the common length, push_str of x = nlen x).  The step counts follow the data flow of the model:
     (1) the path part (two extract_path_filename, the two segment iterators, the skip loop over common segments, the
         ".." loop, the copy loop, the filename rule) costs at most 9 |base path| + 6 |url path| + 26;
     (2) the whole method (comparisons of cannot_be_a_base / scheme / host / port, the path part, the copies of query and
         fragment) at most 12 |base| + 8 |url| + 35 in the lengths of the two serializations - linear, no product term:
         every loop consumes its iterator;
     (3) whenever the method returns a relative reference the accessors the count is defined from returned as well. *)
From RU Require Proofs.C04_CostRel.
Theorem C04_cost_make_relative : forall dbg b t,
  (forall pb pt, C04_CostRel.mr_path_k pb pt <= 9 * nlen pb + 6 * nlen pt + 26)
  /\ C04_CostRel.make_relative_k dbg b t <= 12 * nlen (ser b) + 8 * nlen (ser t) + 35
  /\ (forall r, MakeRelative.make_relative dbg b t = Some (Some r) ->
        exists sb st pb pt q f, scheme b = Some sb /\ scheme t = Some st /\ path b = Some pb /\ path t = Some pt
          /\ query dbg t = Some q /\ fragment dbg t = Some f).
Proof.
  intros dbg b t. exact (conj C04_CostRel.mr_path_k_le (conj (C04_CostRel.make_relative_k_le dbg b t)
        (C04_CostRel.make_relative_k_defined dbg b t))).
Qed.
Check C04_cost_make_relative : forall dbg b t,
  (forall pb pt, C04_CostRel.mr_path_k pb pt <= 9 * nlen pb + 6 * nlen pt + 26)
  /\ C04_CostRel.make_relative_k dbg b t <= 12 * nlen (ser b) + 8 * nlen (ser t) + 35
  /\ (forall r, MakeRelative.make_relative dbg b t = Some (Some r) ->
        exists sb st pb pt q f, scheme b = Some sb /\ scheme t = Some st /\ path b = Some pb /\ path t = Some pt
          /\ query dbg t = Some q /\ fragment dbg t = Some f).
Print Assumptions C04_cost_make_relative.

(* http://h/a/b/c?x against http://h/a/d/e?q#f gives "../d/e?q#f" in 64 steps (48 for the path part) *)
Example C04_cost_make_relative_instance :
  exists b t, parse_url true toy_hp toy_hp toy_hd None None [104;116;116;112;58;47;47;104;47;97;47;98;47;99;63;120] = POk b
    /\ parse_url true toy_hp toy_hp toy_hd None None [104;116;116;112;58;47;47;104;47;97;47;100;47;101;63;113;35;102] = POk t
    /\ MakeRelative.make_relative true b t = Some (Some [46; 46; 47; 100; 47; 101; 63; 113; 35; 102])
    /\ C04_CostRel.make_relative_k true b t = 64
    /\ C04_CostRel.mr_path_k [47;97;47;98;47;99] [47;97;47;100;47;101] = 48.
Proof. eexists. eexists. split; [vm_compute; reflexivity|]. split; [vm_compute; reflexivity|]. vm_compute. repeat split. Qed.

(* COST OF THE FILE-PATH CONVERSIONS (Proofs/C04_CostFile.v; model Model/FilePath.v, cfg(unix); cost semantics of
   Model/Cost.v: Path::components() / split('/') examine every byte of their text once, the percent-encoder and the
   percent-decoder are the twins pe_chunks_c / decode_c - their counts include the bytes written -, push = 1).  The step
   counts follow the data flow of the model:
     (1) Url::from_file_path (path_to_file_url_segments; from_directory_path adds two steps): at most 6 |path| + 10;
     (2) Url::to_file_path (path_segments, the host test, file_url_segments_to_pathbuf): at most 5 |url| + 14 in the length
         of the serialization.
   Linear: every component / segment is encoded or decoded once. *)
From RU Require Proofs.C04_CostFile.
Theorem C04_cost_file_path :
  (forall p, C04_CostFile.from_file_path_k p <= 6 * nlen p + 10)
  /\ (forall u, C04_CostFile.to_file_path_k u <= 5 * nlen (ser u) + 14).
Proof. exact (conj C04_CostFile.from_file_path_k_le C04_CostFile.to_file_path_k_le). Qed.
Check C04_cost_file_path :
  (forall p, C04_CostFile.from_file_path_k p <= 6 * nlen p + 10)
  /\ (forall u, C04_CostFile.to_file_path_k u <= 5 * nlen (ser u) + 14).
Print Assumptions C04_cost_file_path.

(* "/a b/../c.txt" -> file:///a%20b/../c.txt in 49 steps, and back in 57 *)
Example C04_cost_file_path_instance :
  let p := [47; 97; 32; 98; 47; 46; 46; 47; 99; 46; 116; 120; 116] in
  C04_CostFile.from_file_path_k p = 49
  /\ exists u, FilePath.from_file_path p = FilePath.FOk u
       /\ ser u = [102; 105; 108; 101; 58; 47; 47; 47; 97; 37; 50; 48; 98; 47; 46; 46; 47; 99; 46; 116; 120; 116]
       /\ FilePath.to_file_path true u = FilePath.FOk p /\ C04_CostFile.to_file_path_k u = 57.
Proof. cbv zeta. split; [vm_compute; reflexivity|]. eexists. split; [vm_compute; reflexivity|]. vm_compute. repeat split. Qed.

(* THE INVENTORY TABLE, THIRD ROUND (Proofs/C04_Table3.v): eleven more of the rows that carried the trivial claim get a claim on
   the Gallina model of their function.  table3 is computed from C04_Table2.table2 and the list overrides3; the new rows get
   kind KRange:
     Url::port (a u16 on every wf_b record, and only with an authority), Url::has_host (false exactly when Url::host() is
     None; never disagrees with host_str() / domain(); no premise), Origin::is_tuple (false exactly when the ASCII
     serialization is "null"), Origin::ascii_serialization (ASCII whenever scheme and host text are), SchemeType::is_special
     / is_file (exactly the six special schemes / exactly "file"; a default port implies special-not-file),
     parser::ascii_alpha (exactly A-Z a-z), parser::is_windows_drive_letter (exactly letter + ':' or '|'),
     Serializer::encoding_override (the one Serializer method without panic outcome), Decoder::new (counters start at 0),
     DataUrl::mime_type (on a result of DataUrl::process: the first component of parse_header on the header text).
     (1) the key columns of table3 ARE the regenerated inventory T_C04_API;
     (2) every claim holds (the 48 of table2 and the 10 new ones), hence the claim of every row;
     (3) every override names exactly one row of table2, a K KByType row with the trivial claim, and its new claim is not
         the trivial one;
     (4) the rows that are not overridden keep kind and pinned theorem;
     (5) exactly the rows of kind K KByType / K KDocumented / K KHarness carry the trivial claim;
     (6) census: 145 rows with a claim on a model (76 KTheorem, 20 KExact, 17 KOutside, 32 KRange); 16 KByType,
         2 KDocumented, 4 KHarness: 22 rows with the trivial claim instead of 33;
     (7) the 22 rows are exactly those of C04_Table3.why_trivial (crate, name, reason), in source order: builders,
         constructors and field reads / moves without model function (ParseOptions::base_url / encoding_override,
         Url::options / as_str / into_string, Host::to_owned, SyntaxViolation::description, Parser::for_setter,
         quirks::internal_components / href, Idna::new, four Config builders, Uts46::new), the 2
         documented panics (Config::use_idna_2008_rules, AsciiDenyList::new) and the 4 functions without model
         (ParseOptions::syntax_violation_callback, Url::socket_addrs, serialize_internal, deserialize_internal). *)
From RU Require Proofs.C04_Table3.
Theorem C04_no_panic_inventory3 :
  map C04_Table3.row3_key C04_Table3.table3 = T_C04_API
  /\ ((forall q, C04_Table3.claim3 q)
      /\ Forall (fun r => C04_Table3.claim3 (C04_Table3.r3_claim r)) C04_Table3.table3)
  /\ C04_Table3.overrides3_sound_b = true
  /\ C04_Table3.table3_keeps_b = true
  /\ C04_Table3.kinds3_consistent_b = true
  /\ (length C04_Table3.table3 = 167%nat /\ length C04_Table3.overrides3 = 11%nat /\ C04_Table3.model_rows = 145%nat
      /\ C04_Table3.count_kind3 (C04_Table2.K C04_Table.KTheorem) = 76%nat
      /\ C04_Table3.count_kind3 (C04_Table2.K C04_Table.KExact) = 20%nat
      /\ C04_Table3.count_kind3 (C04_Table2.K C04_Table.KOutside) = 17%nat
      /\ C04_Table3.count_kind3 C04_Table2.KRange = 32%nat
      /\ C04_Table3.count_kind3 (C04_Table2.K C04_Table.KByType) = 16%nat
      /\ C04_Table3.count_kind3 (C04_Table2.K C04_Table.KDocumented) = 2%nat
      /\ C04_Table3.count_kind3 (C04_Table2.K C04_Table.KHarness) = 4%nat)
  /\ C04_Table3.why_total_b = true.
Proof.
  exact (conj C04_Table3.table3_complete (conj (conj C04_Table3.claims3_hold C04_Table3.table3_sound)
        (conj C04_Table3.overrides3_sound (conj C04_Table3.table3_keeps (conj C04_Table3.kinds3_consistent
        (conj C04_Table3.table3_counts C04_Table3.why_total)))))).
Qed.
Check C04_no_panic_inventory3 :
  map C04_Table3.row3_key C04_Table3.table3 = T_C04_API
  /\ ((forall q, C04_Table3.claim3 q)
      /\ Forall (fun r => C04_Table3.claim3 (C04_Table3.r3_claim r)) C04_Table3.table3)
  /\ C04_Table3.overrides3_sound_b = true
  /\ C04_Table3.table3_keeps_b = true
  /\ C04_Table3.kinds3_consistent_b = true
  /\ (length C04_Table3.table3 = 167%nat /\ length C04_Table3.overrides3 = 11%nat /\ C04_Table3.model_rows = 145%nat
      /\ C04_Table3.count_kind3 (C04_Table2.K C04_Table.KTheorem) = 76%nat
      /\ C04_Table3.count_kind3 (C04_Table2.K C04_Table.KExact) = 20%nat
      /\ C04_Table3.count_kind3 (C04_Table2.K C04_Table.KOutside) = 17%nat
      /\ C04_Table3.count_kind3 C04_Table2.KRange = 32%nat
      /\ C04_Table3.count_kind3 (C04_Table2.K C04_Table.KByType) = 16%nat
      /\ C04_Table3.count_kind3 (C04_Table2.K C04_Table.KDocumented) = 2%nat
      /\ C04_Table3.count_kind3 (C04_Table2.K C04_Table.KHarness) = 4%nat)
  /\ C04_Table3.why_total_b = true.
Print Assumptions C04_no_panic_inventory3.

(* non-vacuity of the new claims: concrete values *)
Example C04_inventory3_instances :
  (let u := mkUrl [104; 116; 116; 112; 58; 47; 47; 97; 58; 56; 49; 47] 4 7 7 8 HI_Domain (Some 81) 11 None None in
   wf_b u = true /\ port u = Some 81 /\ has_host u = true /\ host_str u = Some (Some [97]))
  /\ has_host (mkUrl [120; 58; 97] 1 2 2 2 HI_None None 2 None None) = false
  /\ Origin.is_tuple (Origin.Tuple s_https (HDomain [97; 46; 98]) 8443) = true
  /\ Origin.ascii_serialization (fun _ => []) (Origin.Tuple s_https (HDomain [97; 46; 98]) 8443)
     = [104; 116; 116; 112; 115; 58; 47; 47; 97; 46; 98; 58; 56; 52; 52; 51]
  /\ Origin.ascii_serialization (fun _ => []) (Origin.Opaque 7) = [110; 117; 108; 108]
  /\ st_is_special (scheme_type_of s_wss) = true /\ st_is_file (scheme_type_of s_file) = true
  /\ st_is_special (scheme_type_of [100; 97; 116; 97]) = false
  /\ is_alpha 122 = true /\ is_alpha 91 = false
  /\ is_wdl [67; 124] = true /\ is_normalized_wdl [67; 124] = false /\ is_wdl [67; 58; 47] = false
  (* data:a/b;base64,eA *)
  /\ (exists u, DataUrl.process [100; 97; 116; 97; 58; 97; 47; 98; 59; 98; 97; 115; 101; 54; 52; 44; 101; 65] = Mime.Ok (inl u)
                /\ Mime.m_type (DataUrl.mime_type u) = [97] /\ Mime.m_subtype (DataUrl.mime_type u) = [98]
                /\ DataUrl.du_base64 u = true).
Proof. vm_compute. repeat split. eexists. repeat split. Qed.
