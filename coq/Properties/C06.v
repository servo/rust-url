(* Properties/C06.v - Url setters: atomic failure, frame condition, get-after-set, couplings.
   Model: Model/Setters.v (every mutator of url/src/lib.rs, path_segments.rs, quirks.rs as the code
   is; None = panic).  Vocabulary (Proofs/C06_*.v):
     wfh u                = wf_b u = true /\ host_text_ok u
       wf_b               the executable structural invariant of Model/WF.v
       host_text_ok u     if u has a host, its text is non-empty and does not start with ':' or '@'
                          (wf_b does not tie the host kind to the host text; every parsed URL has this)
     same_front dbg u u'  scheme, username, password, host_str, port read the same
     same_ids dbg u u'    scheme, username, password, host_str read the same
     same_back dbg u u'   path, query, fragment read the same
     tnl_text S x         what parse_fragment / parse_query (setter context) write for x with encode set S;
                          for a &str: encode S (utf8 (x without TAB/LF/CR))   (C06_text)
     query_text u x       tnl_text (QUERY or SPECIAL_QUERY by scheme of u) (x trimmed of TAB/LF/CR at both ends)
     userinfo_enc x       utf8_percent_encode(x, USERINFO)
     norm_port sch p      p, or None when p is the default port of scheme sch
     rstrip (= 0x20) p    p without its trailing spaces
     opaque_strip_applies u   u has an opaque path and no query
     path_empty_at_end u      the path is empty and is the end of the serialization      (class of F-C06-5)
     path_starts_with_2slash u   the path starts with "//"                                 (class of F-C02-2)
     new_path_ok P        P contains neither '?' nor '#', and is empty or starts with '/'
     marker_path u        no authority and path_start = scheme_end + 3 (the "/." marker in front of a "//"-led path)
     noauth_slash_path u  no authority, no marker, the path starts with '/'
     host_disp_ok hd h    the text hd h matches the kind of h: empty for the empty host, otherwise
                          non-empty and not starting with ':' / '@'
     host_fns_ok hp hpo hd   every host returned by Host::parse (hp) / Host::parse_opaque (hpo) satisfies host_disp_ok hd,
                          and the empty host is displayed as nothing (follows from C03's HostWf: C06_host_fns)
     set_host_arg_text x  the text Url::set_host hands to the host parser: a bracketed argument whole, otherwise
                          the text in front of the first ':' (None when the argument starts with ':')
     host_set_post dbg hd u u' h   u' satisfies wf_b and host_text_ok; scheme, username, password, port, path, query,
                          fragment read as in u; host_str u' = the display of h (None for the empty host);
                          host kind = kind of h
     host_port_post dbg hd u u' h np   the same with port u' = np instead of port u' = port u
     q_host_port sch rem  what the text behind the host says about the port in quirks::set_host: None = nothing
                          usable (the old port stays), Some p = parse_port (setter context) returned p
     stype u              scheme_type_of (the scheme text of u): the scheme type the parser works with
     plainc sp c          c is not TAB/LF/CR, not '@', not '/', '?', '#' (nor '\' when sp: special scheme) - the
                          characters the first pass of parse_userinfo walks over (C02_AuthParts.v)
     hostc sp c           c is not TAB/LF/CR, none of ':' '/' '?' '#' '[' ']' (nor '\' when sp)
     qh_tail X / h_tail X / pe_ok X / host_tail sp X   the rest of the input X is empty or starts with '?' or '#' / with '#' /
                          with a path delimiter / with a character at which the host scan stops
     after_hash X         None for the empty X, otherwise what follows its first character
     pw_text pw           ':' pw for Some pw, nothing for None
     clean S t            every byte of t is kept (not percent-encoded) by the encode set S (C02_Enc.v)
   All theorems are for both build configurations (dbg) and for arbitrary host functions. *)
From RU Require Import Base.Prelude Base.Utf8 Model.AsciiSet Gen.Tables Model.PercentEncoding
  Model.HostT Model.UrlRecord Model.Parser Model.Setters Model.WF
  Proofs.ListN Proofs.C14_Set Proofs.C02_Enc Proofs.C02_AuthParts Proofs.C03_WF Proofs.C06_List Proofs.C06_WFI Proofs.C06_Tail Proofs.C06_Steps Proofs.C06_Suffix
  Proofs.C06_Front Proofs.C06_Atomic Proofs.C06_FragQuery Proofs.C06_Port Proofs.C06_Cred Proofs.C06_Scheme
  Proofs.C06_HostNone Proofs.C06_Host Proofs.C06_PathParser Proofs.C06_Path Proofs.C06_Segments Proofs.C06_PathNoAuth Proofs.C06_Main
  Proofs.C06_PathMore Proofs.C03_ReachParts Proofs.C06_Quirks Proofs.C06_Agree Proofs.C06_AgreeSet.

(* 1. a mutator that reports failure returns the record unchanged (hence as_str() byte for byte).
   No premise at all: every record, every argument, all thirteen status-returning mutators. *)
Theorem C06_atomic : forall dbg hp hpo hd,
  fails_atomically (set_port dbg)
  /\ fails_atomically (set_host dbg hp hpo hd)
  /\ fails_atomically (set_ip_host dbg hd)
  /\ fails_atomically (set_password dbg)
  /\ fails_atomically (set_username dbg)
  /\ fails_atomically (set_scheme dbg)
  /\ fails_atomically (path_segments_session dbg)
  /\ fails_atomically (q_set_protocol dbg)
  /\ fails_atomically (q_set_username dbg)
  /\ fails_atomically (q_set_password dbg)
  /\ fails_atomically (q_set_host dbg hp hpo hd)
  /\ fails_atomically (q_set_hostname dbg hp hpo hd)
  /\ fails_atomically (q_set_port dbg).
Proof. exact atomic_all. Qed.
Check C06_atomic : forall dbg hp hpo hd,
  fails_atomically (set_port dbg)
  /\ fails_atomically (set_host dbg hp hpo hd)
  /\ fails_atomically (set_ip_host dbg hd)
  /\ fails_atomically (set_password dbg)
  /\ fails_atomically (set_username dbg)
  /\ fails_atomically (set_scheme dbg)
  /\ fails_atomically (path_segments_session dbg)
  /\ fails_atomically (q_set_protocol dbg)
  /\ fails_atomically (q_set_username dbg)
  /\ fails_atomically (q_set_password dbg)
  /\ fails_atomically (q_set_host dbg hp hpo hd)
  /\ fails_atomically (q_set_hostname dbg hp hpo hd)
  /\ fails_atomically (q_set_port dbg).
Print Assumptions C06_atomic.

(* 2. frame condition, per mutator (set_path and path_segments_mut: see C06_frame_path).
   The set_host(Some x) clause says little: it asks host_disp_ok hd h of EVERY value h (false of the model's
   Display: C09's host_disp_ok_all_refuted), and its h is chosen before the premise on h and is not tied to x,
   so on a URL with a port h := the empty host makes the clause true of any u'.  The statement with the parsed
   host made explicit, under host_fns_ok, is C06_set_host_some. *)
Theorem C06_frame : forall dbg hp hpo hd u, wfh u ->
  (forall f u', set_fragment dbg u f = Some u' ->
     unchanged_but_fragment dbg u u'
     /\ path_same_or_stripped (match f with None => opaque_strip_applies u | Some _ => false end) u u')
  /\ (forall q u', str_arg_ok q -> set_query dbg u q = Some u' ->
     unchanged_but_query dbg u u'
     /\ path_same_or_stripped (match q with None => is_opaque_b u && negb (has_some (fragment_start u)) | Some _ => false end) u u')
  /\ (forall p u', port_arg_ok p -> set_port dbg u p = Some (u', SOk) ->
     same_ids dbg u u' /\ same_back dbg u u')
  /\ (forall pw u', set_password dbg u pw = Some (u', SOk) ->
     scheme u' = scheme u /\ username dbg u' = username dbg u /\ host_str u' = host_str u /\ port u' = port u
     /\ same_back dbg u u')
  /\ (forall un u', set_username dbg u un = Some (u', SOk) ->
     scheme u' = scheme u /\ password dbg u' = password dbg u /\ host_str u' = host_str u /\ port u' = port u
     /\ same_back dbg u u')
  /\ (forall s u', set_scheme dbg u s = Some (u', SOk) ->
     username dbg u' = username dbg u /\ password dbg u' = password dbg u /\ host_str u' = host_str u
     /\ same_back dbg u u' /\ (port u' = port u \/ port u' = None))
  /\ (forall u', set_host dbg hp hpo hd u None = Some (u', SOk) ->
     (has_host u = false -> u' = u)
     /\ (has_host u = true -> path_empty_at_end u = false -> path_starts_with_2slash u = false ->
         scheme u' = scheme u /\ same_back dbg u u'))
  /\ (forall x u', (forall h, host_disp_ok hd h) ->
     (has_authority_b u = false -> path_start u = scheme_end u + 1) ->
     set_host dbg hp hpo hd u (Some x) = Some (u', SOk) ->
     exists h, (has_authority_b u = true -> hi_of_host h = HI_None -> port u = None) ->
       scheme u' = scheme u /\ username dbg u' = username dbg u /\ password dbg u' = password dbg u
       /\ port u' = port u /\ same_back dbg u u')
  /\ (forall h u', host_disp_ok hd h ->
     (has_authority_b u = false -> path_start u = scheme_end u + 1) ->
     (has_authority_b u = true -> hi_of_host h = HI_None -> port u = None) ->
     set_ip_host dbg hd u h = Some (u', SOk) ->
     scheme u' = scheme u /\ username dbg u' = username dbg u /\ password dbg u' = password dbg u
     /\ port u' = port u /\ same_back dbg u u').
Proof. exact frame_all. Qed.
Print Assumptions C06_frame.

(* 3. get-after-set *)
Theorem C06_get : forall dbg hd u, wfh u ->
  (forall f u', set_fragment dbg u f = Some u' ->
     fragment dbg u' = Some (match f with Some x => Some (tnl_text T_FRAGMENT x) | None => None end))
  /\ (forall q u', str_arg_ok q -> set_query dbg u q = Some u' ->
     query dbg u' = Some (match q with Some x => Some (query_text u x) | None => None end))
  /\ (forall p u', port_arg_ok p -> set_port dbg u p = Some (u', SOk) ->
     exists sch, scheme u = Some sch /\ port u' = norm_port sch p)
  /\ (forall pw u', set_password dbg u pw = Some (u', SOk) ->
     password dbg u' = Some (match pw with Some (c :: r) => Some (userinfo_enc (c :: r)) | _ => None end))
  /\ (forall un u', set_username dbg u un = Some (u', SOk) ->
     exists cur, username dbg u = Some cur
       /\ username dbg u' = Some (if list_eqb cur (utf8_encode un) then cur else userinfo_enc un))
  /\ (forall s u', set_scheme dbg u s = Some (u', SOk) ->
     exists new rem, parse_scheme CSetter s = Some (new, rem) /\ scheme u' = Some new)
  /\ (forall h u', host_disp_ok hd h ->
     (has_authority_b u = false -> path_start u = scheme_end u + 1) ->
     (has_authority_b u = true -> hi_of_host h = HI_None -> port u = None) ->
     set_ip_host dbg hd u h = Some (u', SOk) ->
     host_str u' = Some (if hi_some (hi_of_host h) then Some (hd h) else None)
     /\ hosti u' = hi_of_host h).
Proof. exact get_all. Qed.
Print Assumptions C06_get.

(* the text written for a &str argument, in closed form: the percent-encoding (C14's `encode`) of the
   UTF-8 bytes of the argument with TAB / LF / CR removed - what the parser produces for that text *)
Theorem C06_text : forall S x, usv_list x -> tnl_text S x = encode S (utf8_encode (filter not_tnl x)).
Proof. exact tnl_text_spec. Qed.
Check C06_text : forall S x, usv_list x -> tnl_text S x = encode S (utf8_encode (filter not_tnl x)).
Print Assumptions C06_text.

(* 4. the documented couplings *)
Theorem C06_couple : forall dbg hp hpo hd u, wfh u ->
  (forall u', set_host dbg hp hpo hd u None = Some (u', SOk) ->
     has_host u = true -> path_empty_at_end u = false -> path_starts_with_2slash u = false ->
     username dbg u' = Some [] /\ password dbg u' = Some None /\ host_str u' = Some None /\ port u' = None)
  /\ (forall p u' sch, p <= 65535 -> set_port dbg u (Some p) = Some (u', SOk) -> scheme u = Some sch ->
     default_port sch = Some p -> port u' = None)
  /\ (forall s u' new rem p, set_scheme dbg u s = Some (u', SOk) -> parse_scheme CSetter s = Some (new, rem) ->
     port u = Some p -> port u' = if opt_eqb (Some p) (default_port new) then None else Some p).
Proof. exact couple_all. Qed.
Check C06_couple : forall dbg hp hpo hd u, wfh u ->
  (forall u', set_host dbg hp hpo hd u None = Some (u', SOk) ->
     has_host u = true -> path_empty_at_end u = false -> path_starts_with_2slash u = false ->
     username dbg u' = Some [] /\ password dbg u' = Some None /\ host_str u' = Some None /\ port u' = None)
  /\ (forall p u' sch, p <= 65535 -> set_port dbg u (Some p) = Some (u', SOk) -> scheme u = Some sch ->
     default_port sch = Some p -> port u' = None)
  /\ (forall s u' new rem p, set_scheme dbg u s = Some (u', SOk) -> parse_scheme CSetter s = Some (new, rem) ->
     port u = Some p -> port u' = if opt_eqb (Some p) (default_port new) then None else Some p).
Print Assumptions C06_couple.

(* 5. the invariant is preserved (so the theorems above apply along histories of these calls) *)
Theorem C06_wf : forall dbg hp hpo hd u, wfh u ->
  (forall f u', set_fragment dbg u f = Some u' -> wfh u')
  /\ (forall q u', str_arg_ok q -> set_query dbg u q = Some u' -> wfh u')
  /\ (forall p u' st, port_arg_ok p -> set_port dbg u p = Some (u', st) -> wfh u')
  /\ (forall pw u' st, set_password dbg u pw = Some (u', st) -> wfh u')
  /\ (forall un u' st, set_username dbg u un = Some (u', st) -> wfh u')
  /\ (forall s u' st, set_scheme dbg u s = Some (u', st) -> wfh u')
  /\ (forall u' st, path_empty_at_end u = false -> path_starts_with_2slash u = false ->
        set_host dbg hp hpo hd u None = Some (u', st) -> wfh u')
  /\ (forall h u' st, host_disp_ok hd h ->
        (has_authority_b u = true -> hi_of_host h = HI_None -> port u = None) ->
        (has_authority_b u = false -> path_start u = scheme_end u + 1) ->
        set_ip_host dbg hd u h = Some (u', st) -> wfh u').
Proof. exact wf_all. Qed.
Print Assumptions C06_wf.

(* 6. no panic on a well-formed record *)
Theorem C06_nopanic : forall dbg u, wfh u ->
  (forall f, exists u', set_fragment dbg u f = Some u')
  /\ (forall q, str_arg_ok q -> exists u', set_query dbg u q = Some u')
  /\ (forall p, port_arg_ok p -> exists r, set_port dbg u p = Some r)
  /\ (forall pw, exists r, set_password dbg u pw = Some r)
  /\ (forall un, exists r, set_username dbg u un = Some r)
  /\ (forall s, exists r, set_scheme dbg u s = Some r).
Proof.
  intros dbg u [W HT]. splits.
  - intros f. destruct (set_fragment_ok dbg u f W) as (u' & E & _). exists u'. exact E.
  - intros q Hq. destruct (set_query_ok dbg u q W Hq) as (u' & E & _). exists u'. exact E.
  - intros p Hp. destruct (set_port_ok dbg u p W HT Hp) as (u' & st & E & _). eexists. exact E.
  - intros pw. destruct (set_password_ok dbg u pw W HT) as (u' & st & E & _). eexists. exact E.
  - intros un. destruct (set_username_ok dbg u un W HT) as (u' & st & E & _). eexists. exact E.
  - intros s. destruct (set_scheme_ok dbg u s W HT) as (u' & st & E & _). eexists. exact E.
Qed.
Check C06_nopanic : forall dbg u, wfh u ->
  (forall f, exists u', set_fragment dbg u f = Some u')
  /\ (forall q, str_arg_ok q -> exists u', set_query dbg u q = Some u')
  /\ (forall p, port_arg_ok p -> exists r, set_port dbg u p = Some r)
  /\ (forall pw, exists r, set_password dbg u pw = Some r)
  /\ (forall un, exists r, set_username dbg u un = Some r)
  /\ (forall s, exists r, set_scheme dbg u s = Some r).
Print Assumptions C06_nopanic.

(* 7. the excluded classes are real defects of rust-url (witnesses, evaluated by vm_compute) *)
Theorem C06_known_refuted :
  (* F-C06-5: set_host(None) on "a://h" rewrites the empty path to "/" *)
  (wf_b hn_w1 = true /\ path_empty_at_end hn_w1 = true
   /\ exists u', set_host true hn_hp hn_hp hn_hd hn_w1 None = Some (u', SOk)
      /\ path hn_w1 = Some [] /\ path u' = Some [47])
  (* F-C02-2: set_host(None) on "a://h//x" gives "a://x", not well-formed *)
  /\ (wf_b hn_w2 = true /\ path_starts_with_2slash hn_w2 = true
      /\ exists u', set_host true hn_hp hn_hp hn_hd hn_w2 None = Some (u', SOk)
         /\ ser u' = [97; 58; 47; 47; 120] /\ wf_b u' = false)
  (* F-C02-4: set_host(Some "") on "a://h:80/" gives "a://:80/", not well-formed *)
  /\ (wf_b hs_w1 = true
      /\ exists u', set_host true hs_hp hs_hp hs_hd hs_w1 (Some []) = Some (u', SOk)
         /\ ser u' = [97; 58; 47; 47; 58; 56; 48; 47] /\ wf_b u' = false)
  (* F-C03-5: set_host(Some "h") on "a:/.//p" keeps the marker: "a://h/.//p", not well-formed *)
  /\ (wf_b hs_w2 = true /\ has_authority_b hs_w2 = false /\ path_start hs_w2 <> scheme_end hs_w2 + 1
      /\ exists u', set_host true hs_hp hs_hp hs_hd hs_w2 (Some [104]) = Some (u', SOk)
         /\ ser u' = [97; 58; 47; 47; 104; 47; 46; 47; 47; 112] /\ wf_b u' = false).
Proof.
  split; [exact set_host_none_empty_path_refuted|]. split; [exact set_host_none_double_slash_refuted|].
  split; [exact set_host_empty_with_port_refuted | exact set_host_marker_refuted].
Qed.
Print Assumptions C06_known_refuted.

(* 8. set_path and path_segments_mut sessions (open, any sequence of clear / pop / pop_if_empty /
   push / extend, drop) on a URL WITH an authority: invariant, frame, and the new path is what the path
   state of the parser wrote - free of '?' and '#', empty or starting with '/'.
   auth_end_ok u: for a special non-file scheme the text in front of the path does not end in '/'
   (true of every parsed URL; wf_b does not say it).  Authority-less URLs are the classes F-C02-3
   (opaque path), F-C02-8 and F-C03-5: see C06_path_noauth_refuted and C06_frame_path_noauth. *)
Theorem C06_frame_path : forall dbg u, wfh u -> has_authority_b u = true ->
  (forall p u', usv_list p -> auth_end_ok u -> set_path dbg u p = Some u' ->
     wfh u' /\ same_front dbg u u' /\ query dbg u' = query dbg u /\ fragment dbg u' = fragment dbg u
     /\ exists P, path u' = Some P /\ new_path_ok P
        /\ exists hh rem, parse_path_start dbg CSetter (scheme_type_of (nfirstn (scheme_end u) (ser u))) true
                            (nfirstn (path_start u) (ser u)) p
                          = POk (nfirstn (path_start u) (ser u) ++ P, hh, rem))
  /\ (forall ops u', Forall psm_op_usv ops -> path_segments_session dbg u ops = Some (u', SOk) ->
     wfh u' /\ same_front dbg u u' /\ query dbg u' = query dbg u /\ fragment dbg u' = fragment dbg u
     /\ exists P, path u' = Some P /\ new_path_ok P).
Proof. exact path_all. Qed.
Check C06_frame_path : forall dbg u, wfh u -> has_authority_b u = true ->
  (forall p u', usv_list p -> auth_end_ok u -> set_path dbg u p = Some u' ->
     wfh u' /\ same_front dbg u u' /\ query dbg u' = query dbg u /\ fragment dbg u' = fragment dbg u
     /\ exists P, path u' = Some P /\ new_path_ok P
        /\ exists hh rem, parse_path_start dbg CSetter (scheme_type_of (nfirstn (scheme_end u) (ser u))) true
                            (nfirstn (path_start u) (ser u)) p
                          = POk (nfirstn (path_start u) (ser u) ++ P, hh, rem))
  /\ (forall ops u', Forall psm_op_usv ops -> path_segments_session dbg u ops = Some (u', SOk) ->
     wfh u' /\ same_front dbg u u' /\ query dbg u' = query dbg u /\ fragment dbg u' = fragment dbg u
     /\ exists P, path u' = Some P /\ new_path_ok P).
Print Assumptions C06_frame_path.

(* F-C02-8: set_path("//x") on "a:/p" gives "a://x", not well-formed;
   F-C02-3: set_path("?") on "a:b" gives "a:?" with the '?' inside the path, not well-formed *)
Theorem C06_path_noauth_refuted :
  (wf_b sp_w1 = true /\ has_authority_b sp_w1 = false
   /\ exists u', set_path true sp_w1 [47; 47; 120] = Some u' /\ ser u' = [97; 58; 47; 47; 120] /\ wf_b u' = false)
  /\ (wf_b sp_w2 = true /\ has_authority_b sp_w2 = false
      /\ exists u', set_path true sp_w2 [63] = Some u' /\ ser u' = [97; 58; 63] /\ query_start u' = None /\ wf_b u' = false).
Proof. split; [exact set_path_noauth_refuted | exact set_path_opaque_refuted]. Qed.
Print Assumptions C06_path_noauth_refuted.

(* 9. the same editors on an authority-less URL whose path starts with '/' and that has no "/." marker
   (noauth_slash_path u): as above, provided the RESULT does not start with "//" - when it does,
   rust-url inserts no marker (F-C02-8, witness above). *)
Theorem C06_frame_path_noauth : forall dbg u, wf_b u = true -> noauth_slash_path u ->
  (forall p u', usv_list p -> set_path dbg u p = Some u' -> path_starts_with_2slash u' = false ->
     wfh u' /\ same_front dbg u u' /\ query dbg u' = query dbg u /\ fragment dbg u' = fragment dbg u
     /\ exists P, path u' = Some P /\ new_path_ok P)
  /\ (forall ops u', Forall psm_op_usv ops -> path_segments_session dbg u ops = Some (u', SOk) ->
     path_starts_with_2slash u' = false ->
     wfh u' /\ same_front dbg u u' /\ query dbg u' = query dbg u /\ fragment dbg u' = fragment dbg u
     /\ exists P, path u' = Some P /\ new_path_ok P).
Proof.
  intros dbg u W NA. split.
  - intros p u' Hp E Hss. destruct (set_path_noauth_ok dbg u p u' W NA Hp E Hss) as (W' & HT' & A & B & C & D).
    split; [split; assumption|]. splits; assumption.
  - intros ops u' Hops E Hss.
    destruct (path_segments_session_noauth_ok dbg u ops u' W NA Hops E Hss) as (W' & HT' & A & B & C & D).
    split; [split; assumption|]. splits; assumption.
Qed.
Check C06_frame_path_noauth : forall dbg u, wf_b u = true -> noauth_slash_path u ->
  (forall p u', usv_list p -> set_path dbg u p = Some u' -> path_starts_with_2slash u' = false ->
     wfh u' /\ same_front dbg u u' /\ query dbg u' = query dbg u /\ fragment dbg u' = fragment dbg u
     /\ exists P, path u' = Some P /\ new_path_ok P)
  /\ (forall ops u', Forall psm_op_usv ops -> path_segments_session dbg u ops = Some (u', SOk) ->
     path_starts_with_2slash u' = false ->
     wfh u' /\ same_front dbg u u' /\ query dbg u' = query dbg u /\ fragment dbg u' = fragment dbg u
     /\ exists P, path u' = Some P /\ new_path_ok P).
Print Assumptions C06_frame_path_noauth.

(* 10. set_path on an OPAQUE path, for every argument (a &str) without '?' and '#' (with them: the class
   F-C02-3, witness in C06_path_noauth_refuted): invariant and frame.  The statement is false of
   rust-url before commit 0cfc9d8 (finding F-C06-6: only a '/' in the very first position of the argument
   was escaped while TAB / LF / CR were dropped afterwards, so set_path("<TAB>//x") on "a:b" gave "a://x");
   since 0cfc9d8 the '/' test is made on the TAB / LF / CR-free input, and that is the code
   Model/Setters.v follows. *)
Definition C06_frame_path_opaque_statement : Prop :=
  forall dbg u p u', wfh u -> is_opaque_b u = true -> usv_list p ->
    forallb no_qh p = true -> set_path dbg u p = Some u' ->
    wfh u' /\ same_front dbg u u' /\ query dbg u' = query dbg u /\ fragment dbg u' = fragment dbg u.

Theorem C06_frame_path_opaque : C06_frame_path_opaque_statement.
Proof.
  intros dbg u p u' [W _] O Hu Q E.
  destruct (set_path_opaque_ok dbg u p u' W O Hu Q E) as (A & B & C & D & F & _).
  split; [split; assumption|]. split; [exact C|]. split; [exact D | exact F].
Qed.
Check C06_frame_path_opaque : forall dbg u p u', wfh u -> is_opaque_b u = true -> usv_list p ->
    forallb no_qh p = true -> set_path dbg u p = Some u' ->
    wfh u' /\ same_front dbg u u' /\ query dbg u' = query dbg u /\ fragment dbg u' = fragment dbg u.
Print Assumptions C06_frame_path_opaque.

(* in addition: the path stays opaque (the URL stays cannot-be-a-base) and the new path has no '?' / '#' *)
Theorem C06_get_path_opaque : forall dbg u p u', wfh u -> is_opaque_b u = true -> usv_list p ->
  forallb no_qh p = true -> set_path dbg u p = Some u' ->
  is_opaque_b u' = true /\ exists P, path u' = Some P /\ forallb no_qh P = true.
Proof.
  intros dbg u p u' [W _] O Hu Q E.
  destruct (set_path_opaque_ok dbg u p u' W O Hu Q E) as (_ & _ & _ & _ & _ & G & H). split; assumption.
Qed.
Check C06_get_path_opaque : forall dbg u p u', wfh u -> is_opaque_b u = true -> usv_list p ->
  forallb no_qh p = true -> set_path dbg u p = Some u' ->
  is_opaque_b u' = true /\ exists P, path u' = Some P /\ forallb no_qh P = true.
Print Assumptions C06_get_path_opaque.

(* the hypotheses are met non-trivially: "a:b" with set_path("x /y") gives "a:x /y"; with set_path("/y")
   the leading '/' is escaped: "a:%2Fy"; and so it is behind a TAB: set_path(TAB "//x") gives "a:%2F/x"
   (the witness of F-C06-6) *)
Example C06_frame_path_opaque_inhabited :
  wfh sp_w2 /\ is_opaque_b sp_w2 = true
  /\ (exists u', set_path true sp_w2 [120; 32; 47; 121] = Some u' /\ ser u' = [97; 58; 120; 32; 47; 121]
        /\ wf_b u' = true)
  /\ (exists u', set_path true sp_w2 [47; 121] = Some u' /\ ser u' = [97; 58; 37; 50; 70; 121] /\ is_opaque_b u' = true)
  /\ (exists u', set_path true sp_w2 [9; 47; 47; 120] = Some u' /\ ser u' = [97; 58; 37; 50; 70; 47; 120]
        /\ wf_b u' = true /\ is_opaque_b u' = true).
Proof.
  split; [split; [vm_compute; reflexivity | intros Hh; vm_compute in Hh; discriminate]|].
  split; [vm_compute; reflexivity|].
  split; [|split]; eexists; (split; [vm_compute; reflexivity|]); repeat split; vm_compute; reflexivity.
Qed.

(* 11. set_path and path_segments_mut sessions on an authority-less URL that carries the "/." marker
   (marker_path u: no authority, path_start = scheme_end + 3; the class of F-C03-5): neither editor
   touches the marker, so the result satisfies the invariant and the frame iff the new path still starts
   with "//" - otherwise "/." stays in front of a path that needs none. *)
Theorem C06_frame_path_marker : forall dbg u, wf_b u = true -> marker_path u ->
  (forall p u', usv_list p -> set_path dbg u p = Some u' ->
     (path_starts_with_2slash u' = true ->
        wfh u' /\ same_front dbg u u' /\ query dbg u' = query dbg u /\ fragment dbg u' = fragment dbg u
        /\ exists P, path u' = Some P /\ new_path_ok P)
     /\ (path_starts_with_2slash u' = false -> wf_b u' = false))
  /\ (forall ops u', Forall psm_op_usv ops -> path_segments_session dbg u ops = Some (u', SOk) ->
     (path_starts_with_2slash u' = true ->
        wfh u' /\ same_front dbg u u' /\ query dbg u' = query dbg u /\ fragment dbg u' = fragment dbg u
        /\ exists P, path u' = Some P /\ new_path_ok P)
     /\ (path_starts_with_2slash u' = false -> wf_b u' = false)).
Proof.
  intros dbg u W M. split.
  - intros p u' Hp E. destruct (set_path_marker_ok dbg u p u' W M Hp E) as [R1 R2]. split; [|exact R2].
    intros H. destruct (R1 H) as (A & B & C & D & F & G). split; [split; assumption|]. split; [exact C|]. split; [exact D|]. split; [exact F | exact G].
  - intros ops u' Ho E. destruct (path_segments_session_marker_ok dbg u ops u' W M Ho E) as [R1 R2]. split; [|exact R2].
    intros H. destruct (R1 H) as (A & B & C & D & F & G). split; [split; assumption|]. split; [exact C|]. split; [exact D|]. split; [exact F | exact G].
Qed.
Check C06_frame_path_marker : forall dbg u, wf_b u = true -> marker_path u ->
  (forall p u', usv_list p -> set_path dbg u p = Some u' ->
     (path_starts_with_2slash u' = true ->
        wfh u' /\ same_front dbg u u' /\ query dbg u' = query dbg u /\ fragment dbg u' = fragment dbg u
        /\ exists P, path u' = Some P /\ new_path_ok P)
     /\ (path_starts_with_2slash u' = false -> wf_b u' = false))
  /\ (forall ops u', Forall psm_op_usv ops -> path_segments_session dbg u ops = Some (u', SOk) ->
     (path_starts_with_2slash u' = true ->
        wfh u' /\ same_front dbg u u' /\ query dbg u' = query dbg u /\ fragment dbg u' = fragment dbg u
        /\ exists P, path u' = Some P /\ new_path_ok P)
     /\ (path_starts_with_2slash u' = false -> wf_b u' = false)).
Print Assumptions C06_frame_path_marker.

(* both halves are inhabited: "a:/.//p" - set_path("/q") gives "a:/./q", path_segments_mut().clear() gives
   "a:/./" (not well-formed), set_path("//q") gives "a:/.//q" (well-formed) *)
Theorem C06_path_marker_refuted :
  wf_b mk_w = true /\ marker_path mk_w
  /\ (exists u', set_path true mk_w [47; 113] = Some u' /\ ser u' = [97; 58; 47; 46; 47; 113] /\ wf_b u' = false)
  /\ (exists u', path_segments_session true mk_w [PClear] = Some (u', SOk) /\ ser u' = [97; 58; 47; 46; 47] /\ wf_b u' = false)
  /\ (exists u', set_path true mk_w [47; 47; 113] = Some u' /\ ser u' = [97; 58; 47; 46; 47; 47; 113] /\ wf_b u' = true).
Proof. exact marker_refuted. Qed.
Print Assumptions C06_path_marker_refuted.

(* 12. the exclusion of C06_frame_path_noauth is exact as well: on an authority-less URL with a '/'-led
   path and no marker, a result that starts with "//" is never well-formed (F-C02-8) *)
Theorem C06_frame_path_noauth_exact : forall dbg u, wf_b u = true -> noauth_slash_path u ->
  (forall p u', usv_list p -> set_path dbg u p = Some u' -> path_starts_with_2slash u' = true -> wf_b u' = false)
  /\ (forall ops u', Forall psm_op_usv ops -> path_segments_session dbg u ops = Some (u', SOk) ->
     path_starts_with_2slash u' = true -> wf_b u' = false).
Proof.
  intros dbg u W NA. split.
  - intros p u' Hp E. exact (set_path_noauth_exact dbg u p u' W NA Hp E).
  - intros ops u' Ho E. exact (path_segments_session_noauth_exact dbg u ops u' W NA Ho E).
Qed.
Check C06_frame_path_noauth_exact : forall dbg u, wf_b u = true -> noauth_slash_path u ->
  (forall p u', usv_list p -> set_path dbg u p = Some u' -> path_starts_with_2slash u' = true -> wf_b u' = false)
  /\ (forall ops u', Forall psm_op_usv ops -> path_segments_session dbg u ops = Some (u', SOk) ->
     path_starts_with_2slash u' = true -> wf_b u' = false).
Print Assumptions C06_frame_path_noauth_exact.

(* the four layouts of a well-formed record are exhaustive: authority (8), no authority with a '/'-led
   path and no marker (9, 12), opaque path (10), marker (11) *)
Theorem C06_path_layouts : forall u, wf_b u = true ->
  has_authority_b u = true \/ noauth_slash_path u \/ is_opaque_b u = true \/ marker_path u.
Proof. exact path_layouts. Qed.
Check C06_path_layouts : forall u, wf_b u = true ->
  has_authority_b u = true \/ noauth_slash_path u \/ is_opaque_b u = true \/ marker_path u.
Print Assumptions C06_path_layouts.

(* non-vacuity: the invariant is inhabited (http://u:p@h:81/a?q#f and an opaque-path URL) *)
Example C06_wfh_inhabited :
  wfh (mkUrl [104;116;116;112;58;47;47;117;58;112;64;104;58;56;49;47;97;63;113;35;102]
             4 8 11 12 HI_Domain (Some 81) 15 (Some 17) (Some 19))
  /\ wfh (mkUrl [97;58;120;32] 1 2 2 2 HI_None None 2 None None).
Proof.
  split; (split; [vm_compute; reflexivity|]); intros H; vm_compute in H |- *; try discriminate.
  split; [reflexivity|]. split; reflexivity.
Qed.

(* 13. Url::set_host(Some x) with the host the code parses made explicit (C06_frame only says
   "exists h", under a hypothesis on ALL hosts; C06_get has no clause for it): the argument text goes through set_host_arg_text, the host
   parser of the scheme type returns h, and - outside F-C02-4 (empty host on a URL with a port) and F-C03-5
   (marker), both refuted by witnesses in C06_known_refuted - the result satisfies the invariant, reads back
   the display of h as its host and leaves every other component as it was. *)
Theorem C06_set_host_some : forall dbg hp hpo hd u x u', host_fns_ok hp hpo hd -> wfh u ->
  (has_authority_b u = false -> path_start u = scheme_end u + 1) ->
  set_host dbg hp hpo hd u (Some x) = Some (u', SOk) ->
  exists sch t h, scheme u = Some sch /\ set_host_arg_text x = Some t
    /\ (if st_is_special (scheme_type_of sch) then hp t else hpo t) = Ok h
    /\ ((has_authority_b u = true -> hi_of_host h = HI_None -> port u = None) -> host_set_post dbg hd u u' h).
Proof. intros dbg hp hpo hd u x u' HF [W _]. exact (set_host_some_post dbg hp hpo hd HF u x u' W). Qed.
Check C06_set_host_some : forall dbg hp hpo hd u x u', host_fns_ok hp hpo hd -> wfh u ->
  (has_authority_b u = false -> path_start u = scheme_end u + 1) ->
  set_host dbg hp hpo hd u (Some x) = Some (u', SOk) ->
  exists sch t h, scheme u = Some sch /\ set_host_arg_text x = Some t
    /\ (if st_is_special (scheme_type_of sch) then hp t else hpo t) = Ok h
    /\ ((has_authority_b u = true -> hi_of_host h = HI_None -> port u = None) -> host_set_post dbg hd u u' h).
Print Assumptions C06_set_host_some.

(* the hypothesis on the host functions follows from C03's HostWf (hence from C02's HostRT / HostOK, and it
   is what C09_host_model_ok establishes for the host model) *)
Theorem C06_host_fns : forall hp hpo hd, HostWf hp hpo hd -> host_fns_ok hp hpo hd.
Proof. exact HostWf_fns_ok. Qed.
Check C06_host_fns : forall hp hpo hd, HostWf hp hpo hd -> host_fns_ok hp hpo hd.
Print Assumptions C06_host_fns.

(* 14. the quirks setters that write host, port and path (the other five are definitionally Url setters:
   q_set_protocol / q_set_username / q_set_password / q_set_search / q_set_hash; their failure atomicity
   is in C06_atomic).  On a wfh record without the "/." marker (F-C03-5):
   - quirks::set_port never panics; a success preserves wfh, leaves scheme / username / password / host /
     path / query / fragment as they were and stores exactly the port the parser's port state (setter
     context, default port of the scheme) returns for the argument;
   - quirks::set_hostname: the new host is the one the parser's host state returns for the argument, the
     result is host_set_post.  The code itself refuses an empty host on a URL with a port, so the class
     F-C02-4 cannot arise except through the file / empty-argument shortcut, where the premise is kept;
   - quirks::set_host: the same, and when the text behind the host yields a port (q_host_port) the port
     reads back as that port (host_port_post), otherwise the old port stays;
   - quirks::set_pathname does nothing on an opaque path and otherwise IS Url::set_path with the argument
     or with '/' in front of it, so C06_frame_path / _noauth / _marker (and the exactness theorems) apply. *)
Theorem C06_frame_quirks : forall dbg hp hpo hd u, host_fns_ok hp hpo hd -> wfh u ->
  (has_authority_b u = false -> path_start u = scheme_end u + 1) ->
  (forall v, exists r, q_set_port dbg u v = Some r)
  /\ (forall v u', q_set_port dbg u v = Some (u', SOk) ->
        wfh u' /\ same_ids dbg u u' /\ same_back dbg u u'
        /\ exists sch rem, scheme u = Some sch /\ parse_port CSetter (default_port sch) v = POk (port u', rem))
  /\ (forall v u', q_set_hostname dbg hp hpo hd u v = Some (u', SOk) ->
        exists sch h, scheme u = Some sch
          /\ ((scheme_type_of sch = STFile /\ v = [] /\ h = HDomain []
               /\ ((has_authority_b u = true -> port u = None) -> host_set_post dbg hd u u' h))
              \/ ((exists rem, parse_host hp hpo (scheme_type_of sch) v = POk (h, rem))
                  /\ host_set_post dbg hd u u' h)))
  /\ (forall v u', q_set_host dbg hp hpo hd u v = Some (u', SOk) ->
        exists sch h, scheme u = Some sch
          /\ ((scheme_type_of sch = STFile /\ v = [] /\ h = HDomain []
               /\ ((has_authority_b u = true -> port u = None) -> host_set_post dbg hd u u' h))
              \/ (exists rem, parse_host hp hpo (scheme_type_of sch) v = POk (h, rem)
                  /\ match q_host_port sch rem with
                     | None => host_set_post dbg hd u u' h
                     | Some np => host_port_post dbg hd u u' h np
                     end)))
  /\ (forall v u', q_set_pathname dbg u v = Some u' ->
        if is_opaque_b u then u' = u
        else exists p, (p = v \/ p = 47 :: v) /\ (usv_list v -> usv_list p) /\ set_path dbg u p = Some u').
Proof.
  intros dbg hp hpo hd u HF [W HT] X2. splits.
  - intros v. destruct (q_set_port_ok dbg u v W HT) as (u' & st & E & _). exists (u', st). exact E.
  - intros v u' E. destruct (q_set_port_ok dbg u v W HT) as (u'' & st & E' & _ & Hok).
    rewrite E in E'. inversion E'; subst u'' st. destruct (Hok eq_refl) as (W' & HT' & I & B & P).
    split; [split; assumption|]. splits; assumption.
  - intros v u' E. exact (q_set_hostname_post dbg hp hpo hd HF u v u' W X2 E).
  - intros v u' E. exact (q_set_host_post dbg hp hpo hd HF u v u' W X2 E).
  - intros v u' E. destruct (q_set_pathname_eval dbg u v W) as (sch & _ & Ev). rewrite Ev in E. clear Ev.
    unfold is_opaque_b. destruct (negb (byte_eqb (ser u) (scheme_end u + 1) 47)); [inversion E; reflexivity|].
    exists (q_pathname_arg (scheme_type_of sch) (has_host u) v).
    split; [apply q_pathname_arg_cases|]. split; [apply q_pathname_arg_usv | exact E].
Qed.
Check C06_frame_quirks : forall dbg hp hpo hd u, host_fns_ok hp hpo hd -> wfh u ->
  (has_authority_b u = false -> path_start u = scheme_end u + 1) ->
  (forall v, exists r, q_set_port dbg u v = Some r)
  /\ (forall v u', q_set_port dbg u v = Some (u', SOk) ->
        wfh u' /\ same_ids dbg u u' /\ same_back dbg u u'
        /\ exists sch rem, scheme u = Some sch /\ parse_port CSetter (default_port sch) v = POk (port u', rem))
  /\ (forall v u', q_set_hostname dbg hp hpo hd u v = Some (u', SOk) ->
        exists sch h, scheme u = Some sch
          /\ ((scheme_type_of sch = STFile /\ v = [] /\ h = HDomain []
               /\ ((has_authority_b u = true -> port u = None) -> host_set_post dbg hd u u' h))
              \/ ((exists rem, parse_host hp hpo (scheme_type_of sch) v = POk (h, rem))
                  /\ host_set_post dbg hd u u' h)))
  /\ (forall v u', q_set_host dbg hp hpo hd u v = Some (u', SOk) ->
        exists sch h, scheme u = Some sch
          /\ ((scheme_type_of sch = STFile /\ v = [] /\ h = HDomain []
               /\ ((has_authority_b u = true -> port u = None) -> host_set_post dbg hd u u' h))
              \/ (exists rem, parse_host hp hpo (scheme_type_of sch) v = POk (h, rem)
                  /\ match q_host_port sch rem with
                     | None => host_set_post dbg hd u u' h
                     | Some np => host_port_post dbg hd u u' h np
                     end)))
  /\ (forall v u', q_set_pathname dbg u v = Some u' ->
        if is_opaque_b u then u' = u
        else exists p, (p = v \/ p = 47 :: v) /\ (usv_list v -> usv_list p) /\ set_path dbg u p = Some u').
Print Assumptions C06_frame_quirks.

(* the hypotheses are met: a host function instance (alphanumeric texts), the record "a://h:80/p?q#f", and one
   successful call of each: set_host("x:81") -> a://x:81/p?q#f, set_hostname("yz"), set_port("9"),
   set_pathname("z") -> .../z?q#f, and Url::set_host(Some "x:1") -> a://x:80/p?q#f (the port part is ignored) *)
Example C06_quirks_inhabited :
  host_fns_ok qx_hp qx_hp qx_hd /\ wfh qx_u /\ (has_authority_b qx_u = false -> path_start qx_u = scheme_end qx_u + 1)
  /\ (exists u', q_set_host true qx_hp qx_hp qx_hd qx_u [120; 58; 56; 49] = Some (u', SOk)
                  /\ ser u' = [97;58;47;47;120;58;56;49;47;112;63;113;35;102])
  /\ (exists u', q_set_hostname true qx_hp qx_hp qx_hd qx_u [121; 122] = Some (u', SOk)
                  /\ ser u' = [97;58;47;47;121;122;58;56;48;47;112;63;113;35;102])
  /\ (exists u', q_set_port true qx_u [57] = Some (u', SOk) /\ ser u' = [97;58;47;47;104;58;57;47;112;63;113;35;102])
  /\ (exists u', q_set_pathname true qx_u [122] = Some u' /\ ser u' = [97;58;47;47;104;58;56;48;47;122;63;113;35;102])
  /\ (exists u', set_host true qx_hp qx_hp qx_hd qx_u (Some [120; 58; 49]) = Some (u', SOk)
                  /\ ser u' = [97;58;47;47;120;58;56;48;47;112;63;113;35;102]).
Proof. split; [exact qx_fns_ok | exact quirks_inhabited]. Qed.

(* 15. parser agreement, state by state.  For each setter: after a successful call the component reads as C
   (C06_get), and the parser state that reads this component (context UrlParser), run on the ARGUMENT text
   standing at that position - behind any serialization prefix, in front of any rest X of the input that
   starts with a delimiter ending the component - writes exactly C and hands X on.  Arguments are free of
   the characters that end the component in the parser (the exclusions are exact in this sense: such a
   character makes the parser stop earlier while the setter encodes it).
   The composition into Parser::parse_url on the whole spliced text needs the other components of the old
   serialization to be fixpoints of their states (C02's L3 classes): sections 17-19, C06_splice_agreement_*. *)
Theorem C06_parser_agreement_set_fragment : forall dbg u x u', wfh u -> set_fragment dbg u (Some x) = Some u' ->
  exists F, fragment dbg u' = Some (Some F)
    /\ forall ovr st se ser, nlen ser <= U32_MAX_P ->
         parse_query_and_fragment ovr CUrlParser st se ser (35 :: x) = POk (ser ++ 35 :: F, None, Some (nlen ser)).
Proof.
  intros dbg u x u' Hw E. destruct (get_all dbg (fun _ => []) u Hw) as (G & _). exists (tnl_text T_FRAGMENT x).
  split; [exact (G (Some x) u' E)|]. intros ovr st se ser Hb. apply pqf_fragment. exact Hb.
Qed.
Print Assumptions C06_parser_agreement_set_fragment.

(* argument free of '#' *)
Theorem C06_parser_agreement_set_query : forall dbg u x u', wfh u -> usv_list x -> forallb no_h x = true ->
  set_query dbg u (Some x) = Some u' ->
  exists Q, query dbg u' = Some (Some Q)
    /\ forall se ser X, h_tail X -> nlen ser <= U32_MAX_P -> nlen (ser ++ 63 :: Q) <= U32_MAX_P ->
         parse_query_and_fragment None CUrlParser (stype u) se ser (63 :: x ++ X)
         = POk (match after_hash X with
                | None => (ser ++ 63 :: Q, Some (nlen ser), None)
                | Some r => ((ser ++ 63 :: Q) ++ 35 :: tnl_text T_FRAGMENT r, Some (nlen ser), Some (nlen (ser ++ 63 :: Q)))
                end).
Proof.
  intros dbg u x u' Hw Hx Hh E. destruct (get_all dbg (fun _ => []) u Hw) as (_ & G & _). exists (query_text u x).
  split; [exact (G (Some x) u' Hx E)|]. intros se ser X HX Hb1 Hb2.
  unfold query_text in *. fold (stype u) in *. rewrite tnl_text_trim in * by exact Hx.
  apply pqf_query; assumption.
Qed.
Print Assumptions C06_parser_agreement_set_query.

(* any u16; the default port of the scheme reads back as None on both sides *)
Theorem C06_parser_agreement_set_port : forall dbg u p u', wfh u -> p <= 65535 -> set_port dbg u (Some p) = Some (u', SOk) ->
  exists sch, scheme u = Some sch
    /\ forall X, pe_ok X -> parse_port CUrlParser (default_port sch) (decimal p ++ X) = POk (port u', X).
Proof.
  intros dbg u p u' Hw Hp E. destruct (get_all dbg (fun _ => []) u Hw) as (_ & _ & G & _).
  destruct (G (Some p) u' Hp E) as (sch & Hs & Hpt). exists sch. split; [exact Hs|]. intros X HX.
  rewrite Hpt. unfold norm_port. apply parse_port_decimal; assumption.
Qed.
Print Assumptions C06_parser_agreement_set_port.

(* argument non-empty, free of TAB/LF/CR, '@' and the authority delimiters; u0 = any clean username in front *)
Theorem C06_parser_agreement_set_password : forall dbg u y u', wfh u -> usv_list y -> y <> [] ->
  forallb (plainc (st_is_special (stype u))) y = true ->
  set_password dbg u (Some y) = Some (u', SOk) ->
  exists P, password dbg u' = Some (Some P)
    /\ forall A u0 X, clean T_USERINFO u0 = true ->
         (forall count last, scan_last_at (st_is_special (stype u)) X count last = last) ->
         nlen A + nlen u0 <= U32_MAX_P ->
         parse_userinfo (stype u) A (u0 ++ 58 :: y ++ 64 :: X) = POk (A ++ u0 ++ 58 :: P ++ [64], nlen A + nlen u0, X).
Proof.
  intros dbg u y u' Hw Hy Hne Hpl E. destruct (get_all dbg (fun _ => []) u Hw) as (_ & _ & _ & G & _). exists (uenc y). split.
  - rewrite (G (Some y) u' E). destruct y as [|c r]; [contradiction|]. rewrite uenc_userinfo_enc by exact Hy. reflexivity.
  - intros A u0 X Hu0 HX Hb. apply parse_userinfo_raw_pw; assumption.
Qed.
Print Assumptions C06_parser_agreement_set_password.

(* argument free of TAB/LF/CR, ':', '@' and the authority delimiters; pw = any clean password behind it;
   the stored username is clean for USERINFO (true of parsed URLs, C05; used only for the code's shortcut
   "the argument is the stored text") *)
Theorem C06_parser_agreement_set_username : forall dbg u x u', wfh u -> usv_list x ->
  forallb (fun c => plainc (st_is_special (stype u)) c && negb (c =? 58)) x = true ->
  (forall cur, username dbg u = Some cur -> clean T_USERINFO cur = true) ->
  set_username dbg u x = Some (u', SOk) ->
  exists U, username dbg u' = Some U
    /\ forall A pw X, match pw with Some p => clean T_USERINFO p = true /\ p <> [] | None => x <> [] end ->
         (forall count last, scan_last_at (st_is_special (stype u)) X count last = last) ->
         nlen A + nlen U <= U32_MAX_P ->
         parse_userinfo (stype u) A (x ++ pw_text pw ++ 64 :: X) = POk (A ++ U ++ pw_text pw ++ [64], nlen A + nlen U, X).
Proof.
  intros dbg u x u' Hw Hx Hpl Hcl E. destruct (get_all dbg (fun _ => []) u Hw) as (_ & _ & _ & _ & G & _).
  destruct (G x u' E) as (cur & Hc & Hu). exists (uenc x). split.
  - rewrite Hu. f_equal. destruct (list_eqb cur (utf8_encode x)) eqn:El.
    + apply list_eqb_spec in El. unfold uenc. rewrite <- El. symmetry. apply encode_clean. exact (Hcl cur Hc).
    + apply uenc_userinfo_enc. exact Hx.
  - intros A pw X Hpw HX Hb. apply parse_userinfo_raw_user; assumption.
Qed.
Print Assumptions C06_parser_agreement_set_username.

(* URL with an authority (C06_frame_path); argument free of '?' and '#', not starting with TAB/LF/CR *)
Theorem C06_parser_agreement_set_path : forall dbg u p u', wfh u -> has_authority_b u = true -> usv_list p -> auth_end_ok u ->
  forallb no_qh p = true -> match p with c :: _ => is_tnl c = false | [] => True end ->
  set_path dbg u p = Some u' ->
  exists P, path u' = Some P
    /\ forall X, qh_tail X ->
         exists hh, parse_path_start dbg CUrlParser (stype u) true (nfirstn (path_start u) (ser u)) (p ++ X)
                    = POk (nfirstn (path_start u) (ser u) ++ P, hh, X).
Proof.
  intros dbg u p u' Hw Ha Hp He Hq H1 E. destruct (path_all dbg u Hw Ha) as (G & _).
  destruct (G p u' Hp He E) as (_ & _ & _ & _ & P & HP & _ & hh & rem & Hps).
  exists P. split; [exact HP|]. intros X HX. exists hh.
  unfold stype. rewrite (path_start_ctx dbg _ true _ p X Hq HX H1). rewrite Hps. reflexivity.
Qed.
Print Assumptions C06_parser_agreement_set_path.

(* scheme other than file (the file host state elides "localhost" and refuses drive letters, Url::set_host does
   not: F-C02-4); argument free of TAB/LF/CR, ':' '/' '?' '#' '[' ']' (and '\' for a special scheme); no marker *)
Theorem C06_parser_agreement_set_host : forall dbg hp hpo hd u x u', host_fns_ok hp hpo hd -> wfh u ->
  (has_authority_b u = false -> path_start u = scheme_end u + 1) ->
  st_is_file (stype u) = false -> forallb (hostc (st_is_special (stype u))) x = true ->
  set_host dbg hp hpo hd u (Some x) = Some (u', SOk) ->
  exists h, ((has_authority_b u = true -> hi_of_host h = HI_None -> port u = None) ->
             host_str u' = Some (if hi_some (hi_of_host h) then Some (hd h) else None) /\ hosti u' = hi_of_host h)
    /\ forall X, host_tail (st_is_special (stype u)) X -> parse_host hp hpo (stype u) (x ++ X) = POk (h, X).
Proof. exact agree_host. Qed.
Print Assumptions C06_parser_agreement_set_host.

(* the hypotheses are met, and on concrete inputs the composition holds as well: on "a://h:80/p?q#f" each setter
   succeeds with an argument that needs encoding ("u s", "p:w", "xy", 81, "/a b/../c", "k v", "f g"), and
   Parser::parse_url on the old serialization with the RAW argument spliced in returns the same record as the
   setter, field by field (same_as_parse compares all ten fields) *)
From Coq Require Import String.
From RU Require Import Proofs.C02_Reach.
Example C06_parser_agreement_inhabited :
  forallb (fun c => plainc false c && negb (c =? 58)) (B "u s") = true
  /\ forallb (plainc false) (B "p:w") = true
  /\ forallb (hostc false) (B "xy") = true /\ st_is_file (stype qx_u) = false /\ st_is_special (stype qx_u) = false
  /\ forallb no_qh (B "/a b/../c") = true /\ forallb no_h (B "k v") = true
  /\ username true qx_u = Some [] /\ has_authority_b qx_u = true
  /\ same_as_parse (ok_of (set_username true qx_u (B "u s"))) "a://u s@h:80/p?q#f" = true
  /\ same_as_parse (ok_of (set_password true qx_u (Some (B "p:w")))) "a://:p:w@h:80/p?q#f" = true
  /\ same_as_parse (ok_of (set_host true qx_hp qx_hp qx_hd qx_u (Some (B "xy")))) "a://xy:80/p?q#f" = true
  /\ same_as_parse (ok_of (set_port true qx_u (Some 81))) "a://h:81/p?q#f" = true
  /\ same_as_parse (set_path true qx_u (B "/a b/../c")) "a://h:80/a b/../c?q#f" = true
  /\ same_as_parse (set_query true qx_u (Some (B "k v"))) "a://h:80/p?k v#f" = true
  /\ same_as_parse (set_fragment true qx_u (Some (B "f g"))) "a://h:80/p?q#f g" = true
  /\ (exists u', set_username true qx_u (B "u s") = Some (u', SOk) /\ ser u' = B "a://u%20s@h:80/p?q#f")
  /\ (exists u', set_path true qx_u (B "/a b/../c") = Some u' /\ ser u' = B "a://h:80/c?q#f").
Proof. exact agree_inhabited. Qed.

(* 16. auth_end_ok - the premise of C06_frame_path / C06_parser_agreement_set_path - holds of every record
   Parser::parse_url returns for an input that carries a scheme other than "file", parsed without a base and
   without an encoding override (the four canonical classes of C02: special with authority, non-special with
   authority, '/'-led path without authority, opaque path), under C02's hypotheses on the host functions.
   Tail-join results and setter histories: C06_auth_end_canon (section 20).  NOT covered: the file scheme
   (auth_end_ok is vacuous there, but the scheme text of the result is not tracked). *)
From RU Require Import Proofs.C02_AuthMain Proofs.C06_AuthEnd.
Theorem C06_auth_end_parse : forall dbg hp hpo hd input u,
  HostRT hp hpo hd -> host_above hp hpo hd -> usv_list input -> nonfile_input input = true ->
  parse_url dbg hp hpo hd None None input = POk u -> auth_end_ok u.
Proof. exact parse_nonfile_auth_end. Qed.
Check C06_auth_end_parse : forall dbg hp hpo hd input u,
  HostRT hp hpo hd -> host_above hp hpo hd -> usv_list input -> nonfile_input input = true ->
  parse_url dbg hp hpo hd None None input = POk u -> auth_end_ok u.
Print Assumptions C06_auth_end_parse.

Example C06_auth_end_parse_inhabited :
  HostRT ex_hp ex_hp ex_hd /\ host_above ex_hp ex_hp ex_hd
  /\ nonfile_input (B "HTTPS:\\h") = true /\ nonfile_input (B "a://u@h:1/") = true
  /\ exists u, parse_url true ex_hp ex_hp ex_hd None None (B "HTTPS:\\h") = POk u /\ ser u = B "https://h/".
Proof.
  split; [exact (proj1 ex_host_RT)|]. split; [exact (proj2 ex_host_RT)|].
  split; [vm_compute; reflexivity|]. split; [vm_compute; reflexivity|]. eexists. split; vm_compute; reflexivity.
Qed.

(* 17. how the state-level agreement of section 15 composes into agreement with Parser::parse_url, for URLs
   with an authority: if on the text T behind "scheme://" the userinfo, host-and-port, path-start and
   query-and-fragment states each write the canonical text of their component (ui, h, pt, p, q, f of C02's
   auth_url) and hand the rest on, then after "//" the parser returns the canonical record
   auth_url hd sch ui h pt p q f - whatever the RAW text of each component was; and parse_url on
   scheme "://" T is that run (non-special scheme; special non-file scheme when T does not start with a slash).
   Each premise is discharged either by C02's state identities (a component left alone: its text is canonical)
   or by C06_parser_agreement_* / Proofs/C06_Agree.v (the component a setter wrote: raw argument text).
   That each setter maps the canonical record to the canonical record with the new component, so that the
   conclusion reads "parse_url (splice) = POk u'", is sections 18 and 19 (the theorems C06_splice_agreement_...). *)
From RU Require Import Proofs.C02_Parts Proofs.C02_Auth Proofs.C06_AgreeUrl.
Theorem C06_parser_agreement_compose : forall dbg hp hpo hd ovr st sch ui h pt p q f T R1 R2 R3 hh,
  let A := (sch ++ [58]) ++ [47; 47] in
  nlen (auth_front hd sch ui h pt) <= U32_MAX_P ->
  (hi_of_host h = HI_None -> ui = UNone) ->
  parse_userinfo st A T = POk (A ++ ui_text ui, nlen A + ui_ulen ui, R1) ->
  parse_host_and_port hp hpo hd CUrlParser st (nlen sch) (A ++ ui_text ui) R1
    = POk (auth_front hd sch ui h pt, nlen (A ++ ui_text ui) + nlen (hd h), hi_of_host h, pt, R2) ->
  parse_path_start dbg CUrlParser st true (auth_front hd sch ui h pt) R2 = POk (auth_pre hd sch ui h pt p, hh, R3) ->
  parse_query_and_fragment ovr CUrlParser st (nlen sch) (auth_pre hd sch ui h pt p) R3
    = POk (auth_ser hd sch ui h pt p q f, qf_qs (nlen (auth_pre hd sch ui h pt p)) q, qf_fs (nlen (auth_pre hd sch ui h pt p)) q f) ->
  after_double_slash dbg hp hpo hd ovr CUrlParser st (nlen sch) (sch ++ [58]) T = POk (auth_url hd sch ui h pt p q f).
Proof. exact ads_compose. Qed.
Print Assumptions C06_parser_agreement_compose.

Theorem C06_parser_agreement_compose_url : forall dbg hp hpo hd ovr sch T,
  scheme_canon sch = true -> nlen sch <= U32_MAX_P -> edge_ok (sch ++ 58 :: 47 :: 47 :: T) ->
  (scheme_type_of sch = STNotSpecial ->
     parse_url dbg hp hpo hd ovr None (sch ++ 58 :: 47 :: 47 :: T)
     = after_double_slash dbg hp hpo hd ovr CUrlParser STNotSpecial (nlen sch) (sch ++ [58]) T)
  /\ (scheme_type_of sch = STSpecialNotFile ->
      match T with c :: _ => is_tnl c = false /\ is_slash_or_bslash c = false | [] => False end ->
      parse_url dbg hp hpo hd ovr None (sch ++ 58 :: 47 :: 47 :: T)
      = after_double_slash dbg hp hpo hd ovr CUrlParser STSpecialNotFile (nlen sch) (sch ++ [58]) T).
Proof.
  intros dbg hp hpo hd ovr sch T K Hb He. split.
  - intros Hs. exact (parse_url_ads_nonspecial dbg hp hpo hd ovr sch T K Hs Hb He).
  - intros Hs HT. exact (parse_url_ads_special dbg hp hpo hd ovr sch T K Hs Hb He HT).
Qed.
Print Assumptions C06_parser_agreement_compose_url.

(* the premises are met by a non-canonical text: "a://" ++ "u s@h:80/p?q#f" (raw username "u s"), and the
   conclusion: parse_url returns the canonical record whose serialization is "a://u%20s@h:80/p?q#f" *)
Example C06_parser_agreement_compose_inhabited :
  let sch := B "a" in let ui := UUser (B "u%20s") in let h := HDomain (B "h") in let pt := Some 80 in
  let p : pth := Some ([], B "p") in let q := Some (B "q") in let f := Some (B "f") in
  let A := (sch ++ [58]) ++ [47; 47] in
  parse_userinfo STNotSpecial A (B "u s@h:80/p?q#f") = POk (A ++ ui_text ui, nlen A + ui_ulen ui, B "h:80/p?q#f")
  /\ parse_host_and_port ex_hp ex_hp ex_hd CUrlParser STNotSpecial (nlen sch) (A ++ ui_text ui) (B "h:80/p?q#f")
     = POk (auth_front ex_hd sch ui h pt, nlen (A ++ ui_text ui) + nlen (ex_hd h), hi_of_host h, pt, B "/p?q#f")
  /\ parse_path_start true CUrlParser STNotSpecial true (auth_front ex_hd sch ui h pt) (B "/p?q#f")
     = POk (auth_pre ex_hd sch ui h pt p, true, B "?q#f")
  /\ parse_query_and_fragment None CUrlParser STNotSpecial (nlen sch) (auth_pre ex_hd sch ui h pt p) (B "?q#f")
     = POk (auth_ser ex_hd sch ui h pt p q f, qf_qs (nlen (auth_pre ex_hd sch ui h pt p)) q,
            qf_fs (nlen (auth_pre ex_hd sch ui h pt p)) q f)
  /\ edge_ok (sch ++ 58 :: 47 :: 47 :: B "u s@h:80/p?q#f")
  /\ parse_url true ex_hp ex_hp ex_hd None None (B "a://u s@h:80/p?q#f") = POk (auth_url ex_hd sch ui h pt p q f)
  /\ ser (auth_url ex_hd sch ui h pt p q f) = B "a://u%20s@h:80/p?q#f".
Proof. exact compose_inhabited. Qed.

(* 18. WHOLE-URL parser agreement - the literal clause "identical to what the parser produces for the same text in
   that position".  For a canonical record u (C02's Canon: every Url::parse result of a non-file scheme without base,
   closed under these setters - C02_set_fragment_Canon / C02_set_query_Canon / C02_set_port_Canon and, for the
   credentials, Proofs/C06_SpliceCred.v: set_password_auth / set_username_auth compute the canonical result) and a
   successful call, Parser::parse_url (no base, no encoding override) on the OLD serialization with the RAW argument
   text standing in the component's position returns EXACTLY the record the setter returns - serialization, the seven
   offsets, host kind and port.  The spliced texts are read off the record (splice_fragment, splice_query, splice_port,
   splice_password, splice_username).  Exclusions, each exact in the sense that the parser would end the component there
   while the setter encodes the character: set_fragment - the argument does not END in a C0 control or space (parse_url
   trims the input); set_query - no '#', and no such ending when the URL has no fragment; set_port - none;
   set_password - non-empty, no TAB/LF/CR, '@', '/', '?', '#' ('\' for special schemes); set_username - the same and no ':'.
   The bound nlen (ser u') <= U32_MAX_P is the parser's own u32 check.
   set_path and set_host(Some) are section 19, the removal calls (argument None / empty password) sections 22 and 24.
   NOT covered: file URLs. *)
From RU Require Import Proofs.C02_Canon Proofs.C06_Splice Proofs.C06_SpliceAuth Proofs.C06_SpliceCred Proofs.C06_SpliceEx.

Theorem C06_splice_agreement_set_fragment : forall dbg hp hpo hd u x u', HostRT hp hpo hd -> Canon hp hpo hd u ->
  usv_list x -> first_ok (rev (35 :: x)) ->
  set_fragment dbg u (Some x) = Some u' -> nlen (ser u') <= U32_MAX_P ->
  parse_url dbg hp hpo hd None None (splice_fragment u x) = POk u'.
Proof. intros dbg hp hpo hd u x u' HRT. exact (splice_agreement_set_fragment dbg hp hpo hd HRT u x u'). Qed.
Check C06_splice_agreement_set_fragment : forall dbg hp hpo hd u x u', HostRT hp hpo hd -> Canon hp hpo hd u ->
  usv_list x -> first_ok (rev (35 :: x)) ->
  set_fragment dbg u (Some x) = Some u' -> nlen (ser u') <= U32_MAX_P ->
  parse_url dbg hp hpo hd None None (splice_fragment u x) = POk u'.
Print Assumptions C06_splice_agreement_set_fragment.

Theorem C06_splice_agreement_set_query : forall dbg hp hpo hd u x u', HostRT hp hpo hd -> Canon hp hpo hd u ->
  usv_list x -> no_hash x = true -> (fragment_start u = None -> first_ok (rev (63 :: x))) ->
  set_query dbg u (Some x) = Some u' -> nlen (ser u') <= U32_MAX_P ->
  parse_url dbg hp hpo hd None None (splice_query u x) = POk u'.
Proof. intros dbg hp hpo hd u x u' HRT. exact (splice_agreement_set_query dbg hp hpo hd HRT u x u'). Qed.
Check C06_splice_agreement_set_query : forall dbg hp hpo hd u x u', HostRT hp hpo hd -> Canon hp hpo hd u ->
  usv_list x -> no_hash x = true -> (fragment_start u = None -> first_ok (rev (63 :: x))) ->
  set_query dbg u (Some x) = Some u' -> nlen (ser u') <= U32_MAX_P ->
  parse_url dbg hp hpo hd None None (splice_query u x) = POk u'.
Print Assumptions C06_splice_agreement_set_query.

Theorem C06_splice_agreement_set_port : forall dbg hp hpo hd u n u', HostRT hp hpo hd -> Canon hp hpo hd u -> n <= 65535 ->
  set_port dbg u (Some n) = Some (u', SOk) -> nlen (ser u') <= U32_MAX_P ->
  parse_url dbg hp hpo hd None None (splice_port u n) = POk u'.
Proof. intros dbg hp hpo hd u n u' HRT. exact (splice_agreement_set_port dbg hp hpo hd HRT u n u'). Qed.
Check C06_splice_agreement_set_port : forall dbg hp hpo hd u n u', HostRT hp hpo hd -> Canon hp hpo hd u -> n <= 65535 ->
  set_port dbg u (Some n) = Some (u', SOk) -> nlen (ser u') <= U32_MAX_P ->
  parse_url dbg hp hpo hd None None (splice_port u n) = POk u'.
Print Assumptions C06_splice_agreement_set_port.

Theorem C06_splice_agreement_set_password : forall dbg hp hpo hd u y u', HostRT hp hpo hd -> Canon hp hpo hd u ->
  usv_list y -> y <> [] -> forallb (plainc (sp_of u)) y = true ->
  set_password dbg u (Some y) = Some (u', SOk) -> nlen (ser u') <= U32_MAX_P ->
  parse_url dbg hp hpo hd None None (splice_password u y) = POk u'.
Proof. intros dbg hp hpo hd u y u' HRT. exact (splice_agreement_set_password dbg hp hpo hd HRT u y u'). Qed.
Check C06_splice_agreement_set_password : forall dbg hp hpo hd u y u', HostRT hp hpo hd -> Canon hp hpo hd u ->
  usv_list y -> y <> [] -> forallb (plainc (sp_of u)) y = true ->
  set_password dbg u (Some y) = Some (u', SOk) -> nlen (ser u') <= U32_MAX_P ->
  parse_url dbg hp hpo hd None None (splice_password u y) = POk u'.
Print Assumptions C06_splice_agreement_set_password.

Theorem C06_splice_agreement_set_username : forall dbg hp hpo hd u x u', HostRT hp hpo hd -> Canon hp hpo hd u ->
  usv_list x -> forallb (fun c => plainc (sp_of u) c && negb (c =? 58)) x = true ->
  set_username dbg u x = Some (u', SOk) -> nlen (ser u') <= U32_MAX_P ->
  parse_url dbg hp hpo hd None None (splice_username u x) = POk u'.
Proof. intros dbg hp hpo hd u x u' HRT. exact (splice_agreement_set_username dbg hp hpo hd HRT u x u'). Qed.
Check C06_splice_agreement_set_username : forall dbg hp hpo hd u x u', HostRT hp hpo hd -> Canon hp hpo hd u ->
  usv_list x -> forallb (fun c => plainc (sp_of u) c && negb (c =? 58)) x = true ->
  set_username dbg u x = Some (u', SOk) -> nlen (ser u') <= U32_MAX_P ->
  parse_url dbg hp hpo hd None None (splice_username u x) = POk u'.
Print Assumptions C06_splice_agreement_set_username.

(* the five together *)
Definition C06_splice_agreement_stmt : Prop := forall dbg hp hpo hd u, HostRT hp hpo hd -> Canon hp hpo hd u ->
  (forall x u', usv_list x -> first_ok (rev (35 :: x)) -> set_fragment dbg u (Some x) = Some u' -> nlen (ser u') <= U32_MAX_P ->
     parse_url dbg hp hpo hd None None (splice_fragment u x) = POk u')
  /\ (forall x u', usv_list x -> no_hash x = true -> (fragment_start u = None -> first_ok (rev (63 :: x))) ->
        set_query dbg u (Some x) = Some u' -> nlen (ser u') <= U32_MAX_P ->
        parse_url dbg hp hpo hd None None (splice_query u x) = POk u')
  /\ (forall n u', n <= 65535 -> set_port dbg u (Some n) = Some (u', SOk) -> nlen (ser u') <= U32_MAX_P ->
        parse_url dbg hp hpo hd None None (splice_port u n) = POk u')
  /\ (forall y u', usv_list y -> y <> [] -> forallb (plainc (sp_of u)) y = true ->
        set_password dbg u (Some y) = Some (u', SOk) -> nlen (ser u') <= U32_MAX_P ->
        parse_url dbg hp hpo hd None None (splice_password u y) = POk u')
  /\ (forall x u', usv_list x -> forallb (fun c => plainc (sp_of u) c && negb (c =? 58)) x = true ->
        set_username dbg u x = Some (u', SOk) -> nlen (ser u') <= U32_MAX_P ->
        parse_url dbg hp hpo hd None None (splice_username u x) = POk u').
Theorem C06_splice_agreement : C06_splice_agreement_stmt.
Proof.
  intros dbg hp hpo hd u HRT C. split; [|split; [|split; [|split]]].
  - intros x u'. exact (splice_agreement_set_fragment dbg hp hpo hd HRT u x u' C).
  - intros x u'. exact (splice_agreement_set_query dbg hp hpo hd HRT u x u' C).
  - intros n u'. exact (splice_agreement_set_port dbg hp hpo hd HRT u n u' C).
  - intros y u'. exact (splice_agreement_set_password dbg hp hpo hd HRT u y u' C).
  - intros x u'. exact (splice_agreement_set_username dbg hp hpo hd HRT u x u' C).
Qed.
Check C06_splice_agreement : C06_splice_agreement_stmt.
Print Assumptions C06_splice_agreement.

(* the hypotheses are met: ex_hp / ex_hd satisfy HostRT, the records of "a://h:80/p?q#f" (qx_u) and "http://u:p@h/p"
   (sx_u) are canonical, and each setter succeeds with an argument that needs encoding; the spliced texts are
   "a://h:80/p?q#f g", "a://h:80/p?k v#f", "a://h:81/p?q#f", "a://:p:w@h:80/p?q#f", "a://u s@h:80/p?q#f",
   "http://v w:p@h/p", "http://:p@h/p" (username removed, password kept), "http://u:p@h:80/p" (default port) *)
Example C06_splice_agreement_inhabited :
  HostRT ex_hp ex_hp ex_hd /\ Canon ex_hp ex_hp ex_hd qx_u /\ Canon ex_hp ex_hp ex_hd sx_u
  /\ splice_case (set_fragment true qx_u (Some (B "f g"))) (splice_fragment qx_u (B "f g")) (B "a://h:80/p?q#f g") "a://h:80/p?q#f%20g"
  /\ first_ok (rev (35 :: B "f g"))
  /\ splice_case (set_query true qx_u (Some (B "k v"))) (splice_query qx_u (B "k v")) (B "a://h:80/p?k v#f") "a://h:80/p?k%20v#f"
  /\ no_hash (B "k v") = true
  /\ splice_case (ok_of (set_port true qx_u (Some 81))) (splice_port qx_u 81) (B "a://h:81/p?q#f") "a://h:81/p?q#f"
  /\ splice_case (ok_of (set_password true qx_u (Some (B "p:w")))) (splice_password qx_u (B "p:w")) (B "a://:p:w@h:80/p?q#f") "a://:p%3Aw@h:80/p?q#f"
  /\ forallb (plainc (sp_of qx_u)) (B "p:w") = true
  /\ splice_case (ok_of (set_username true qx_u (B "u s"))) (splice_username qx_u (B "u s")) (B "a://u s@h:80/p?q#f") "a://u%20s@h:80/p?q#f"
  /\ forallb (fun c => plainc (sp_of qx_u) c && negb (c =? 58)) (B "u s") = true
  /\ splice_case (ok_of (set_username true sx_u (B "v w"))) (splice_username sx_u (B "v w")) (B "http://v w:p@h/p") "http://v%20w:p@h/p"
  /\ splice_case (ok_of (set_username true sx_u [])) (splice_username sx_u []) (B "http://:p@h/p") "http://:p@h/p"
  /\ splice_case (ok_of (set_port true sx_u (Some 80))) (splice_port sx_u 80) (B "http://u:p@h:80/p") "http://u:p@h/p".
Proof.
  split; [exact (proj1 ex_host_RT)|]. split; [exact (proj1 splice_canon_examples)|]. split; [exact (proj2 splice_canon_examples)|].
  exact splice_inhabited.
Qed.

(* 19. WHOLE-URL parser agreement for set_path and set_host(Some) - the two setters section 18 left at the state level.
   For a canonical record u WITH an authority (both classes: non-special scheme, special non-file scheme):
   - set_path(x), x free of '?' and '#' (the parser ends the path there, the setter encodes them) and EMPTY OR '/'-LED - or
     '\'-led on a special URL, where both sides read it as '/' -
     (path_arg_ok; otherwise the spliced text continues the host or port text: it is not a splice of the path), and -
     only when the URL has neither query nor fragment - not ending in a C0 control or space: parse_url on
     front ++ x ++ "?query#fragment" returns exactly the setter's record; the setter's record is the canonical record
     with the path the parser's path-start state writes for x (Proofs/C06_SplicePath.v: set_path_auth).
   - set_host(Some x), x free of TAB/LF/CR, ':' '/' '?' '#' '[' ']' '@' (and '\' for a special scheme) - hostarg: the
     characters at which the parser's '@' / host scan stops or switches mode while the setter hands x to the host
     parser whole -, not ending in C0/space when nothing follows the host; excluded result (empty_host_ok): the EMPTY
     host on a special URL or a URL with credentials or a port (F-C02-4): parse_url on
     "scheme://userinfo" ++ x ++ ":port/path?query#fragment" returns exactly the setter's record
     (Proofs/C06_SpliceHost.v: set_host_auth computes it: auth_url .. h' .. with h' the host the parser of the scheme
     type returns for x).
   Both results are canonical again (C06_set_path_Canon, C06_set_host_Canon), so the theorems apply along histories.
   The authority-less '/'-led layout for set_path is section 29.  NOT covered: bracketed IPv6 host arguments,
   set_host(Some) on the authority-less layouts, file URLs. *)
From RU Require Import Proofs.C02_Reach3 Proofs.C06_SplicePath Proofs.C06_SpliceHost Proofs.C06_SpliceEx2 Proofs.C06_All.

Theorem C06_splice_agreement_set_path : forall dbg hp hpo hd u x u', HostRT hp hpo hd -> Canon hp hpo hd u ->
  has_authority_b u = true -> usv_list x -> forallb no_qh x = true -> path_arg_ok (sp_of u) x ->
  (query_start u = None -> fragment_start u = None -> first_ok (rev x)) ->
  set_path dbg u x = Some u' -> nlen (ser u') <= U32_MAX_P ->
  parse_url dbg hp hpo hd None None (splice_path u x) = POk u'.
Proof. intros dbg hp hpo hd u x u' HRT. exact (splice_agreement_set_path dbg hp hpo hd HRT u x u'). Qed.
Check C06_splice_agreement_set_path : forall dbg hp hpo hd u x u', HostRT hp hpo hd -> Canon hp hpo hd u ->
  has_authority_b u = true -> usv_list x -> forallb no_qh x = true -> path_arg_ok (sp_of u) x ->
  (query_start u = None -> fragment_start u = None -> first_ok (rev x)) ->
  set_path dbg u x = Some u' -> nlen (ser u') <= U32_MAX_P ->
  parse_url dbg hp hpo hd None None (splice_path u x) = POk u'.
Print Assumptions C06_splice_agreement_set_path.

Theorem C06_splice_agreement_set_host : forall dbg hp hpo hd u x u', HostRT hp hpo hd -> host_above hp hpo hd ->
  Canon hp hpo hd u -> has_authority_b u = true -> usv_list x -> forallb (hostarg (sp_of u)) x = true ->
  (nskipn (host_end u) (ser u) = [] -> first_ok (rev x)) ->
  set_host dbg hp hpo hd u (Some x) = Some (u', SOk) -> empty_host_ok u u' -> nlen (ser u') <= U32_MAX_P ->
  parse_url dbg hp hpo hd None None (splice_host u x) = POk u'.
Proof. intros dbg hp hpo hd u x u' HRT HAb. exact (splice_agreement_set_host dbg hp hpo hd HRT HAb u x u'). Qed.
Check C06_splice_agreement_set_host : forall dbg hp hpo hd u x u', HostRT hp hpo hd -> host_above hp hpo hd ->
  Canon hp hpo hd u -> has_authority_b u = true -> usv_list x -> forallb (hostarg (sp_of u)) x = true ->
  (nskipn (host_end u) (ser u) = [] -> first_ok (rev x)) ->
  set_host dbg hp hpo hd u (Some x) = Some (u', SOk) -> empty_host_ok u u' -> nlen (ser u') <= U32_MAX_P ->
  parse_url dbg hp hpo hd None None (splice_host u x) = POk u'.
Print Assumptions C06_splice_agreement_set_host.

Theorem C06_set_path_Canon : forall dbg hp hpo hd u x u', HostRT hp hpo hd -> Canon hp hpo hd u ->
  has_authority_b u = true -> usv_list x -> forallb no_qh x = true -> path_arg_ok (sp_of u) x ->
  set_path dbg u x = Some u' -> nlen (ser u') <= U32_MAX_P -> Canon hp hpo hd u'.
Proof. intros dbg hp hpo hd u x u' HRT. exact (set_path_Canon dbg hp hpo hd HRT u x u'). Qed.
Check C06_set_path_Canon : forall dbg hp hpo hd u x u', HostRT hp hpo hd -> Canon hp hpo hd u ->
  has_authority_b u = true -> usv_list x -> forallb no_qh x = true -> path_arg_ok (sp_of u) x ->
  set_path dbg u x = Some u' -> nlen (ser u') <= U32_MAX_P -> Canon hp hpo hd u'.
Print Assumptions C06_set_path_Canon.

Theorem C06_set_host_Canon : forall dbg hp hpo hd u x u', HostRT hp hpo hd -> host_above hp hpo hd ->
  Canon hp hpo hd u -> has_authority_b u = true -> forallb (hostarg (sp_of u)) x = true ->
  set_host dbg hp hpo hd u (Some x) = Some (u', SOk) -> empty_host_ok u u' -> nlen (ser u') <= U32_MAX_P ->
  Canon hp hpo hd u'.
Proof. intros dbg hp hpo hd u x u' HRT HAb. exact (set_host_Canon dbg hp hpo hd HRT HAb u x u'). Qed.
Check C06_set_host_Canon : forall dbg hp hpo hd u x u', HostRT hp hpo hd -> host_above hp hpo hd ->
  Canon hp hpo hd u -> has_authority_b u = true -> forallb (hostarg (sp_of u)) x = true ->
  set_host dbg hp hpo hd u (Some x) = Some (u', SOk) -> empty_host_ok u u' -> nlen (ser u') <= U32_MAX_P ->
  Canon hp hpo hd u'.
Print Assumptions C06_set_host_Canon.

(* the hypotheses are met (ex_hp / ex_hd satisfy HostRT and host_above; qx_u = "a://h:80/p?q#f" and sx_u = "http://u:p@h/p"
   are canonical: C06_splice_agreement_inhabited): the spliced texts are "a://h:80/a b/../c?q#f" (result "a://h:80/c?q#f"),
   "http://u:p@h/x y", "http://u:p@h\x" (result "http://u:p@h/x"), "a://h:80?q#f" (empty argument), "a://x.y:80/p?q#f", "http://u:p@abc/p" *)
Example C06_splice_agreement2_inhabited :
  has_authority_b qx_u = true /\ has_authority_b sx_u = true
  /\ splice_case (set_path true qx_u (B "/a b/../c")) (splice_path qx_u (B "/a b/../c")) (B "a://h:80/a b/../c?q#f") "a://h:80/c?q#f"
  /\ forallb no_qh (B "/a b/../c") = true /\ path_arg_ok (sp_of qx_u) (B "/a b/../c")
  /\ splice_case (set_path true sx_u (B "/x y")) (splice_path sx_u (B "/x y")) (B "http://u:p@h/x y") "http://u:p@h/x%20y"
  /\ first_ok (rev (B "/x y"))
  /\ splice_case (set_path true sx_u [92; 120]) (splice_path sx_u [92; 120]) (B "http://u:p@h" ++ [92; 120]) "http://u:p@h/x"
  /\ path_arg_ok (sp_of sx_u) [92; 120]
  /\ splice_case (set_path true qx_u []) (splice_path qx_u []) (B "a://h:80?q#f") "a://h:80?q#f"
  /\ splice_case (ok_of (set_host true ex_hp ex_hp ex_hd qx_u (Some (B "x.y")))) (splice_host qx_u (B "x.y")) (B "a://x.y:80/p?q#f") "a://x.y:80/p?q#f"
  /\ forallb (hostarg (sp_of qx_u)) (B "x.y") = true
  /\ splice_case (ok_of (set_host true ex_hp ex_hp ex_hd sx_u (Some (B "abc")))) (splice_host sx_u (B "abc")) (B "http://u:p@abc/p") "http://u:p@abc/p"
  /\ forallb (hostarg (sp_of sx_u)) (B "abc") = true.
Proof. exact splice2_inhabited. Qed.

(* 20. auth_end_ok - the premise of C06_frame_path - beyond parse results (C06_auth_end_parse): it holds of EVERY
   canonical record, hence (C02: ReachC2_Canon; below: ReachC6) of tail-join results and along histories of the
   canonical setters, query_pairs_mut sessions, set_path and set_host(Some) steps.  So does the invariant wfh.
   NOT covered: file URLs (outside Canon; auth_end_ok is vacuous for the file scheme, but the scheme of a history's
   record is not tracked there), joins other than tail references. *)
Theorem C06_auth_end_canon : forall hp hpo hd u, Canon hp hpo hd u -> auth_end_ok u.
Proof. exact Canon_auth_end_ok. Qed.
Check C06_auth_end_canon : forall hp hpo hd u, Canon hp hpo hd u -> auth_end_ok u.
Print Assumptions C06_auth_end_canon.

Theorem C06_wfh_canon : forall hp hpo hd u, HostRT hp hpo hd -> Canon hp hpo hd u -> wfh u.
Proof. intros hp hpo hd u HRT. exact (Canon_wfh true hp hpo hd HRT u). Qed.
Check C06_wfh_canon : forall hp hpo hd u, HostRT hp hpo hd -> Canon hp hpo hd u -> wfh u.
Print Assumptions C06_wfh_canon.

(* 21. THE ASSEMBLY.  ReachC6 (Proofs/C06_All.v) = C02's ReachC2 - Url::parse of an input with a non-file scheme, joins
   of a tail reference ("", "?q", "#f", "?q#f"), the ten canonical operations (set_fragment, set_query, set_port,
   set_password, set_username and the quirks setters username / password / port / search / hash, every argument),
   query_pairs_mut sessions - extended by set_path steps (argument '?'/'#'-free, empty or '/'-led) and
   set_host(Some) steps (argument in hostarg, result outside F-C02-4) on URLs with an authority.
   For every record u of such a history (host functions: C02's HostRT and host_above, both proved of the host model
   under the IDNA hypothesis in C02/C09):
     - failure: C06_atomic (every record whatsoever, every status-returning mutator);
     - u is canonical (Canon), satisfies the invariant wfh and the premise auth_end_ok of the path theorems - so
       C06_frame, C06_get, C06_couple, C06_wf, C06_nopanic, C06_frame_path and the four path-layout theorems apply to it;
     - all_calls u: for a successful set_fragment / set_query / set_port / set_password / set_username / set_path /
       set_host(Some) the result is canonical again (so all of this applies to it in turn), every component outside
       the touched one reads the same, the touched one reads back as the text the parser state writes for the argument,
       and - for arguments in the exact classes of sections 18 and 19 - Parser::parse_url on the old serialization with
       the raw argument spliced in returns exactly the setter's record.
   NOT in the assembly: removal calls (None / empty arguments; frame, get and couplings are in C06_frame / C06_get /
   C06_couple for every wfh record, the canonical result in C02's set_*_Canon, parser agreement in sections 22 and 24 -
   all for every canonical record, hence for every record of a ReachC6 history), set_scheme (splice: section 28),
   set_ip_host and path_segments_mut sessions (both steps of the wider histories of C06_all_p, section 26), the
   authority-less layouts for set_path / set_host, file URLs, joins of non-tail references. *)
Definition C06_all_statement : Prop := forall dbg hp hpo hd u, HostRT hp hpo hd -> host_above hp hpo hd ->
  ReachC6 dbg hp hpo hd u ->
  Canon hp hpo hd u /\ wfh u /\ auth_end_ok u /\ all_calls dbg hp hpo hd u.

Theorem C06_all : C06_all_statement.
Proof. exact all_reach. Qed.
Check C06_all : forall dbg hp hpo hd u, HostRT hp hpo hd -> host_above hp hpo hd ->
  ReachC6 dbg hp hpo hd u ->
  Canon hp hpo hd u /\ wfh u /\ auth_end_ok u /\ all_calls dbg hp hpo hd u.
Print Assumptions C06_all.

(* the same for every canonical record, reachable or not *)
Theorem C06_all_canon : forall dbg hp hpo hd u, HostRT hp hpo hd -> host_above hp hpo hd -> Canon hp hpo hd u ->
  all_calls dbg hp hpo hd u.
Proof. exact all_canon. Qed.
Check C06_all_canon : forall dbg hp hpo hd u, HostRT hp hpo hd -> host_above hp hpo hd -> Canon hp hpo hd u ->
  all_calls dbg hp hpo hd u.
Print Assumptions C06_all_canon.

(* ReachC6 contains C02's histories *)
Theorem C06_reach_c2 : forall dbg hp hpo hd u, ReachC2 dbg hp hpo hd u -> ReachC6 dbg hp hpo hd u.
Proof. exact ReachC2_C6. Qed.
Check C06_reach_c2 : forall dbg hp hpo hd u, ReachC2 dbg hp hpo hd u -> ReachC6 dbg hp hpo hd u.
Print Assumptions C06_reach_c2.

(* all_calls, spelled out (the definition of Proofs/C06_All.v) *)
Theorem C06_all_calls_unfold : forall dbg hp hpo hd u, all_calls dbg hp hpo hd u <->
  (forall x u', usv_list x -> set_fragment dbg u (Some x) = Some u' -> nlen (ser u') <= U32_MAX_P ->
     Canon hp hpo hd u' /\ unchanged_but_fragment dbg u u' /\ path u' = path u
     /\ fragment dbg u' = Some (Some (tnl_text T_FRAGMENT x))
     /\ (first_ok (rev (35 :: x)) -> parse_url dbg hp hpo hd None None (splice_fragment u x) = POk u'))
  /\ (forall x u', usv_list x -> set_query dbg u (Some x) = Some u' -> nlen (ser u') <= U32_MAX_P ->
     Canon hp hpo hd u' /\ unchanged_but_query dbg u u' /\ path u' = path u
     /\ query dbg u' = Some (Some (query_text u x))
     /\ (no_hash x = true -> (fragment_start u = None -> first_ok (rev (63 :: x))) ->
         parse_url dbg hp hpo hd None None (splice_query u x) = POk u'))
  /\ (forall n u', n <= 65535 -> set_port dbg u (Some n) = Some (u', SOk) -> nlen (ser u') <= U32_MAX_P ->
     Canon hp hpo hd u' /\ same_ids dbg u u' /\ same_back dbg u u'
     /\ (exists sch, scheme u = Some sch /\ port u' = norm_port sch (Some n))
     /\ parse_url dbg hp hpo hd None None (splice_port u n) = POk u')
  /\ (forall y u', usv_list y -> set_password dbg u (Some y) = Some (u', SOk) -> nlen (ser u') <= U32_MAX_P ->
     Canon hp hpo hd u'
     /\ (scheme u' = scheme u /\ username dbg u' = username dbg u /\ host_str u' = host_str u /\ port u' = port u
         /\ same_back dbg u u')
     /\ password dbg u' = Some (match y with c :: r => Some (userinfo_enc (c :: r)) | [] => None end)
     /\ (y <> [] -> forallb (plainc (sp_of u)) y = true ->
         parse_url dbg hp hpo hd None None (splice_password u y) = POk u'))
  /\ (forall x u', usv_list x -> set_username dbg u x = Some (u', SOk) -> nlen (ser u') <= U32_MAX_P ->
     Canon hp hpo hd u'
     /\ (scheme u' = scheme u /\ password dbg u' = password dbg u /\ host_str u' = host_str u /\ port u' = port u
         /\ same_back dbg u u')
     /\ (exists cur, username dbg u = Some cur
           /\ username dbg u' = Some (if list_eqb cur (utf8_encode x) then cur else userinfo_enc x))
     /\ (forallb (fun c => plainc (sp_of u) c && negb (c =? 58)) x = true ->
         parse_url dbg hp hpo hd None None (splice_username u x) = POk u'))
  /\ (forall x u', has_authority_b u = true -> usv_list x -> set_path dbg u x = Some u' -> nlen (ser u') <= U32_MAX_P ->
     wfh u' /\ same_front dbg u u' /\ query dbg u' = query dbg u /\ fragment dbg u' = fragment dbg u
     /\ (exists P, path u' = Some P /\ new_path_ok P)
     /\ (forallb no_qh x = true -> path_arg_ok (sp_of u) x ->
         Canon hp hpo hd u'
         /\ ((query_start u = None -> fragment_start u = None -> first_ok (rev x)) ->
             parse_url dbg hp hpo hd None None (splice_path u x) = POk u')))
  /\ (forall x u', has_authority_b u = true -> forallb (hostarg (sp_of u)) x = true ->
     set_host dbg hp hpo hd u (Some x) = Some (u', SOk) -> empty_host_ok u u' -> nlen (ser u') <= U32_MAX_P ->
     Canon hp hpo hd u'
     /\ (exists h, (if sp_of u then hp x else hpo x) = Ok h /\ host_set_post dbg hd u u' h)
     /\ (usv_list x -> (nskipn (host_end u) (ser u) = [] -> first_ok (rev x)) ->
         parse_url dbg hp hpo hd None None (splice_host u x) = POk u')).
Proof. intros dbg hp hpo hd u. unfold all_calls. split; intros H; exact H. Qed.
Print Assumptions C06_all_calls_unfold.

(* non-vacuity: a ReachC6 history with the host functions ex_hp / ex_hd - parse "a://h:80/p?q#f", set_path("/a b/../c"),
   set_host(Some "x.y"), set_fragment(Some "g") - ends in "a://x.y:80/c?q#g" *)
Example C06_all_inhabited :
  HostRT ex_hp ex_hp ex_hd /\ host_above ex_hp ex_hp ex_hd
  /\ exists u1 u2 u3, ReachC6 true ex_hp ex_hp ex_hd qx_u
    /\ set_path true qx_u (B "/a b/../c") = Some u1 /\ ReachC6 true ex_hp ex_hp ex_hd u1
    /\ set_host true ex_hp ex_hp ex_hd u1 (Some (B "x.y")) = Some (u2, SOk) /\ ReachC6 true ex_hp ex_hp ex_hd u2
    /\ set_fragment true u2 (Some (B "g")) = Some u3 /\ ReachC6 true ex_hp ex_hp ex_hd u3
    /\ ser u3 = B "a://x.y:80/c?q#g".
Proof. split; [exact (proj1 ex_host_RT)|]. split; [exact (proj2 ex_host_RT) | exact reach6_inhabited]. Qed.

(* 22. WHOLE-URL parser agreement for the REMOVAL calls set_fragment(None), set_query(None), set_port(None): the result
   is canonical (C02's set_*_Canon), its serialization IS the old serialization with the component and its delimiter cut
   out (cut_fragment / cut_query / cut_port, read off the record), and Parser::parse_url on that text returns exactly the
   setter's record.  Premise for the first two: the cut text does not end in a C0 control or space - this leaves out
   exactly the documented coupling "removing the last of query / fragment from an opaque path strips its trailing
   spaces" (C06_frame states it; Url::parse would trim them from its input too).  set_port(None): no premise.
   set_password(None / "") is section 24, set_host(None) section 27. *)
From RU Require Import Proofs.C06_SpliceNone.

Theorem C06_splice_agreement_remove_fragment : forall dbg hp hpo hd u u', HostRT hp hpo hd -> Canon hp hpo hd u ->
  first_ok (rev (cut_fragment u)) -> set_fragment dbg u None = Some u' -> nlen (ser u') <= U32_MAX_P ->
  ser u' = cut_fragment u /\ parse_url dbg hp hpo hd None None (cut_fragment u) = POk u'.
Proof. intros dbg hp hpo hd u u' HRT. exact (splice_agreement_remove_fragment dbg hp hpo hd HRT u u'). Qed.
Check C06_splice_agreement_remove_fragment : forall dbg hp hpo hd u u', HostRT hp hpo hd -> Canon hp hpo hd u ->
  first_ok (rev (cut_fragment u)) -> set_fragment dbg u None = Some u' -> nlen (ser u') <= U32_MAX_P ->
  ser u' = cut_fragment u /\ parse_url dbg hp hpo hd None None (cut_fragment u) = POk u'.
Print Assumptions C06_splice_agreement_remove_fragment.

Theorem C06_splice_agreement_remove_query : forall dbg hp hpo hd u u', HostRT hp hpo hd -> Canon hp hpo hd u ->
  first_ok (rev (cut_query u)) -> set_query dbg u None = Some u' -> nlen (ser u') <= U32_MAX_P ->
  ser u' = cut_query u /\ parse_url dbg hp hpo hd None None (cut_query u) = POk u'.
Proof. intros dbg hp hpo hd u u' HRT. exact (splice_agreement_remove_query dbg hp hpo hd HRT u u'). Qed.
Check C06_splice_agreement_remove_query : forall dbg hp hpo hd u u', HostRT hp hpo hd -> Canon hp hpo hd u ->
  first_ok (rev (cut_query u)) -> set_query dbg u None = Some u' -> nlen (ser u') <= U32_MAX_P ->
  ser u' = cut_query u /\ parse_url dbg hp hpo hd None None (cut_query u) = POk u'.
Print Assumptions C06_splice_agreement_remove_query.

Theorem C06_splice_agreement_remove_port : forall dbg hp hpo hd u u', HostRT hp hpo hd -> Canon hp hpo hd u ->
  set_port dbg u None = Some (u', SOk) -> nlen (ser u') <= U32_MAX_P ->
  ser u' = cut_port u /\ parse_url dbg hp hpo hd None None (cut_port u) = POk u'.
Proof. intros dbg hp hpo hd u u' HRT. exact (splice_agreement_remove_port dbg hp hpo hd HRT u u'). Qed.
Check C06_splice_agreement_remove_port : forall dbg hp hpo hd u u', HostRT hp hpo hd -> Canon hp hpo hd u ->
  set_port dbg u None = Some (u', SOk) -> nlen (ser u') <= U32_MAX_P ->
  ser u' = cut_port u /\ parse_url dbg hp hpo hd None None (cut_port u) = POk u'.
Print Assumptions C06_splice_agreement_remove_port.

(* the hypotheses are met on "a://h:80/p?q#f": the cut texts are "a://h:80/p?q", "a://h:80/p#f", "a://h/p?q#f" *)
Example C06_splice_agreement_remove_inhabited :
  (exists u', set_fragment true qx_u None = Some u' /\ cut_fragment qx_u = B "a://h:80/p?q" /\ first_ok (rev (cut_fragment qx_u)))
  /\ (exists u', set_query true qx_u None = Some u' /\ cut_query qx_u = B "a://h:80/p#f" /\ first_ok (rev (cut_query qx_u)))
  /\ (exists u', set_port true qx_u None = Some (u', SOk) /\ cut_port qx_u = B "a://h/p?q#f").
Proof.
  split; [|split]; eexists; (split; [vm_compute; reflexivity|]); repeat split; vm_compute; reflexivity.
Qed.

(* 23. (a) state-level path agreement on EVERY non-opaque layout - authority, '/'-led path without authority, '/.' marker -
   in one statement (C06_parser_agreement_set_path is the authority case): the record set_path returns is with_path u P
   (the old record with P in the path position and the offsets behind it shifted; Proofs/C06_Path.v), and the parser's
   path-start state in context UrlParser on p X behind the old front writes exactly P and hands X on.  Premise
   byte_eqb (ser u) (scheme_end u + 1) 47: the path is not opaque.  (On the authority-less layouts with_path u P is
   well-formed exactly as C06_frame_path_noauth / _marker say.)
   (b) the exclusions of section 19 are exact: on "a://h:80/p?q#f" a set_path argument that is not '/'-led ("x"), one with
   a '?' ("/a?b"), a set_host argument with a port part ("x:81") and the empty host on a URL with a port (F-C02-4) each
   give a successful setter call whose record Parser::parse_url on the spliced text does NOT return. *)
From RU Require Import Proofs.C06_SpliceMore.

Theorem C06_parser_agreement_set_path_layouts : forall dbg u p u', wf_b u = true ->
  byte_eqb (ser u) (scheme_end u + 1) 47 = true -> usv_list p -> auth_end_ok u ->
  forallb no_qh p = true -> match p with c :: _ => is_tnl c = false | [] => True end ->
  set_path dbg u p = Some u' ->
  exists P, u' = with_path u P /\ new_path_ok P
    /\ forall X, C06_Agree.qh_tail X ->
         exists hh, parse_path_start dbg CUrlParser (stype u) true (nfirstn (path_start u) (ser u)) (p ++ X)
                    = POk (nfirstn (path_start u) (ser u) ++ P, hh, X).
Proof. exact agree_path_layouts. Qed.
Check C06_parser_agreement_set_path_layouts : forall dbg u p u', wf_b u = true ->
  byte_eqb (ser u) (scheme_end u + 1) 47 = true -> usv_list p -> auth_end_ok u ->
  forallb no_qh p = true -> match p with c :: _ => is_tnl c = false | [] => True end ->
  set_path dbg u p = Some u' ->
  exists P, u' = with_path u P /\ new_path_ok P
    /\ forall X, C06_Agree.qh_tail X ->
         exists hh, parse_path_start dbg CUrlParser (stype u) true (nfirstn (path_start u) (ser u)) (p ++ X)
                    = POk (nfirstn (path_start u) (ser u) ++ P, hh, X).
Print Assumptions C06_parser_agreement_set_path_layouts.

(* the premises are met on the authority-less "a:/p" (sp_w1) and the marker URL "a:/.//p" (mk_w) *)
Example C06_parser_agreement_set_path_layouts_inhabited :
  wf_b sp_w1 = true /\ has_authority_b sp_w1 = false /\ byte_eqb (ser sp_w1) (scheme_end sp_w1 + 1) 47 = true /\ auth_end_ok sp_w1
  /\ (exists u', set_path true sp_w1 (B "/x y") = Some u' /\ ser u' = B "a:/x%20y")
  /\ wf_b mk_w = true /\ byte_eqb (ser mk_w) (scheme_end mk_w + 1) 47 = true /\ auth_end_ok mk_w
  /\ (exists u', set_path true mk_w (B "//q") = Some u' /\ ser u' = B "a:/.//q").
Proof.
  split; [vm_compute; reflexivity|]. split; [vm_compute; reflexivity|]. split; [vm_compute; reflexivity|].
  split; [intros H; vm_compute in H; discriminate H|].
  split; [eexists; split; vm_compute; reflexivity|].
  split; [vm_compute; reflexivity|]. split; [vm_compute; reflexivity|].
  split; [intros H; vm_compute in H; discriminate H|].
  eexists; split; vm_compute; reflexivity.
Qed.

Theorem C06_splice_exclusions_refuted :
  Canon ex_hp ex_hp ex_hd qx_u /\ has_authority_b qx_u = true
  /\ parse_differs (set_path true qx_u (B "x")) (splice_path qx_u (B "x")) /\ ~ path_arg_ok (sp_of qx_u) (B "x")
  /\ parse_differs (set_path true qx_u (B "/a?b")) (splice_path qx_u (B "/a?b")) /\ forallb no_qh (B "/a?b") = false
  /\ parse_differs (ok_of (set_host true ex_hp ex_hp ex_hd qx_u (Some (B "x:81")))) (splice_host qx_u (B "x:81"))
  /\ forallb (hostarg (sp_of qx_u)) (B "x:81") = false
  /\ parse_differs (ok_of (set_host true ex_hp ex_hp ex_hd qx_u (Some []))) (splice_host qx_u [])
  /\ (exists u', set_host true ex_hp ex_hp ex_hd qx_u (Some []) = Some (u', SOk) /\ ~ empty_host_ok qx_u u').
Proof. exact splice_exclusions_refuted. Qed.
Print Assumptions C06_splice_exclusions_refuted.

(* 24. the removal of the password: set_password(None) and set_password(Some "") (pw_arg_empty) on a canonical record -
   the serialization of the result is the old one with ":password" cut out, and the '@' too when the user name is empty
   (cut_password, read off the record; the old text itself when there was no password), and Parser::parse_url on that
   text returns exactly the setter's record.  No exclusion.  (set_username("") is an instance of
   C06_splice_agreement_set_username.) *)
From RU Require Import Proofs.C02_SetCred Proofs.C06_SpliceNonePw.

Theorem C06_splice_agreement_remove_password : forall dbg hp hpo hd u pw u', HostRT hp hpo hd -> Canon hp hpo hd u ->
  pw_arg_empty pw -> set_password dbg u pw = Some (u', SOk) -> nlen (ser u') <= U32_MAX_P ->
  ser u' = cut_password u /\ parse_url dbg hp hpo hd None None (cut_password u) = POk u'.
Proof. intros dbg hp hpo hd u pw u' HRT. exact (splice_agreement_remove_password dbg hp hpo hd HRT u pw u'). Qed.
Check C06_splice_agreement_remove_password : forall dbg hp hpo hd u pw u', HostRT hp hpo hd -> Canon hp hpo hd u ->
  pw_arg_empty pw -> set_password dbg u pw = Some (u', SOk) -> nlen (ser u') <= U32_MAX_P ->
  ser u' = cut_password u /\ parse_url dbg hp hpo hd None None (cut_password u) = POk u'.
Print Assumptions C06_splice_agreement_remove_password.

(* on "http://u:p@h/p" the cut text is "http://u@h/p"; after set_username("") ("http://:p@h/p") it is "http://h/p" *)
Example C06_splice_agreement_remove_password_inhabited :
  pw_arg_empty None /\ pw_arg_empty (Some [])
  /\ (exists u', set_password true sx_u None = Some (u', SOk) /\ cut_password sx_u = B "http://u@h/p")
  /\ (exists u1 u', set_username true sx_u [] = Some (u1, SOk) /\ ser u1 = B "http://:p@h/p"
        /\ set_password true u1 (Some []) = Some (u', SOk) /\ cut_password u1 = B "http://h/p").
Proof.
  split; [exact I|]. split; [exact I|].
  split; [eexists; split; vm_compute; reflexivity|].
  eexists. eexists. split; [vm_compute; reflexivity|]. split; [vm_compute; reflexivity|]. split; vm_compute; reflexivity.
Qed.

(* 25. PathSegmentsMut::push / extend, EXACTLY (Proofs/C06_SegPush.v).
   extend() skips a segment when its TAB/LF/CR-free text (strip_tnl) - the text parse_path will see: its input drops
   TAB / LF / CR - is "." or ".." (Setters.psm_skips); every other segment is handed to parse_path in
   the PathSegmentSetter context.  Before rust-url commit 9cd6187 (finding F-C06-7) the test was made on the raw argument:
   push(".<TAB>.") on http://h/a/b was read as ".." by the path state and POPPED the segment "b" (http://h/a/),
   push(".<LF>") appended an empty segment - while push("..") / push(".") were skipped as documented.  C06_7_fixed: since
   9cd6187 all four leave http://h/a/b alone.  No "%2e" spelling is skipped or read as a dot segment: '%' is in
   the PATH_SEGMENT sets, so it comes out as "%25" (witness below).
     session_text st P ops   the path text after the operations ops, computed on the path text P alone:
       clear          -> the first byte of P ("/"; "" stays "")
       pop_if_empty   -> P without its last byte when that is a '/' behind the first byte
       pop            -> P up to its last '/' behind the first byte (up to the first byte when there is none)
       push seg       -> push_text st P seg  (C06_push_text_unfold: P itself when seg without TAB/LF/CR is "." / "..",
                         otherwise P, a '/' unless P is exactly one byte long, and the percent-encoding (PATH_SEGMENT or
                         SPECIAL_PATH_SEGMENT by scheme type st) of the UTF-8 bytes of seg without TAB/LF/CR)
       extend segs    -> push after push
   C06_frame_segments_exact: for a well-formed record that is not cannot-be-a-base, scheme type other than file, EVERY
   &str argument: the record a whole session returns is with_path u (session_text ...) - the very record
   whose frame / invariant C06_frame_path (and _noauth, _marker) state, with the path text explicit; the old path is
   a prefix of the new one for push / extend (C06_push_keeps_prefix): no existing segment is touched.
   C06_7_class_exact: one push of ANY &str segment gives push_text (no segment is in the class of F-C06-7).
   The file scheme (drive-letter rewriting "C|" -> "C:" and, with a TAB inside the segment, a '/' inserted
   behind a drive letter: file:/// push("C:<TAB>x") gives file:///C:/x) is sections 30-33. *)
From RU Require Import Proofs.C06_SegPush.

Theorem C06_7_fixed :
  wf_b w7_url = true /\ psm_skips [46; 9; 46] = true /\ psm_skips [46; 10] = true /\ psm_skips [13; 46; 9; 46; 10] = true
  /\ psm_skips [46; 46] = true /\ psm_skips [46] = true /\ psm_skips [37; 50; 101; 9; 46] = false
  /\ psm_skips [46; 9; 46; 46] = false /\ psm_skips [9] = false
  /\ (forall dbg, path_segments_session dbg w7_url [PPush [46; 9; 46]] = Some (w7_url, SOk))
  /\ (forall dbg, path_segments_session dbg w7_url [PPush [46; 46]] = Some (w7_url, SOk))
  /\ (forall dbg, path_segments_session dbg w7_url [PPush [46; 10]] = Some (w7_url, SOk))
  /\ (forall dbg, path_segments_session dbg w7_url [PPush [46]] = Some (w7_url, SOk))
  /\ (forall dbg, path_segments_session dbg w7_url [PExtend [[46; 9; 46]; [120]; [10; 46]]]
                  = Some (with_path w7_url [47;97;47;98;47;120], SOk))
  /\ (forall dbg, path_segments_session dbg w7_url [PPush [37; 50; 101; 9; 46]]
                  = Some (with_path w7_url [47;97;47;98;47;37;50;53;50;101;46], SOk))
  /\ push_text (st_of w7_url) (path_bytes w7_url) [46; 9; 46] = path_bytes w7_url
  /\ path w7_url = Some [47; 97; 47; 98].
Proof. exact c06_7_fixed_witness. Qed.
Check C06_7_fixed :
  wf_b w7_url = true /\ psm_skips [46; 9; 46] = true /\ psm_skips [46; 10] = true /\ psm_skips [13; 46; 9; 46; 10] = true
  /\ psm_skips [46; 46] = true /\ psm_skips [46] = true /\ psm_skips [37; 50; 101; 9; 46] = false
  /\ psm_skips [46; 9; 46; 46] = false /\ psm_skips [9] = false
  /\ (forall dbg, path_segments_session dbg w7_url [PPush [46; 9; 46]] = Some (w7_url, SOk))
  /\ (forall dbg, path_segments_session dbg w7_url [PPush [46; 46]] = Some (w7_url, SOk))
  /\ (forall dbg, path_segments_session dbg w7_url [PPush [46; 10]] = Some (w7_url, SOk))
  /\ (forall dbg, path_segments_session dbg w7_url [PPush [46]] = Some (w7_url, SOk))
  /\ (forall dbg, path_segments_session dbg w7_url [PExtend [[46; 9; 46]; [120]; [10; 46]]]
                  = Some (with_path w7_url [47;97;47;98;47;120], SOk))
  /\ (forall dbg, path_segments_session dbg w7_url [PPush [37; 50; 101; 9; 46]]
                  = Some (with_path w7_url [47;97;47;98;47;37;50;53;50;101;46], SOk))
  /\ push_text (st_of w7_url) (path_bytes w7_url) [46; 9; 46] = path_bytes w7_url
  /\ path w7_url = Some [47; 97; 47; 98].
Print Assumptions C06_7_fixed.

(* the witness record is "http://h/a/b" *)
Example C06_7_witness_text : ser w7_url = B "http://h/a/b".
Proof. vm_compute; reflexivity. Qed.

Theorem C06_frame_segments_exact : forall dbg u ops u', wf_b u = true ->
  byte_eqb (ser u) (scheme_end u + 1) 47 = true -> st_is_file (st_of u) = false ->
  Forall psm_op_usv ops -> path_segments_session dbg u ops = Some (u', SOk) ->
  path u = Some (path_bytes u) /\ u' = with_path u (session_text (st_of u) (path_bytes u) ops).
Proof.
  intros dbg u ops u' W Hsl Hnf Hu H. split; [exact (path_text_is_path u W)|].
  exact (path_segments_session_exact dbg u ops u' W Hsl Hnf Hu H).
Qed.
Check C06_frame_segments_exact : forall dbg u ops u', wf_b u = true ->
  byte_eqb (ser u) (scheme_end u + 1) 47 = true -> st_is_file (st_of u) = false ->
  Forall psm_op_usv ops -> path_segments_session dbg u ops = Some (u', SOk) ->
  path u = Some (path_bytes u) /\ u' = with_path u (session_text (st_of u) (path_bytes u) ops).
Print Assumptions C06_frame_segments_exact.

(* the premises are met: a session of push("x<TAB>y"), extend(["..", "c/%", ""]), pop, push("e-acute") on http://h/a/b *)
Example C06_frame_segments_exact_inhabited :
  wf_b w7_url = true /\ byte_eqb (ser w7_url) (scheme_end w7_url + 1) 47 = true /\ st_is_file (st_of w7_url) = false
  /\ Forall psm_op_usv [PPush [120; 9; 121]; PExtend [[46; 46]; [99; 47; 37]; []]; PPop; PPush [233]]
  /\ path_segments_session true w7_url [PPush [120; 9; 121]; PExtend [[46; 46]; [99; 47; 37]; []]; PPop; PPush [233]]
     = Some (with_path w7_url [47;97;47;98;47;120;121;47;99;37;50;70;37;50;53;47;37;67;51;37;65;57], SOk)
  /\ session_text (st_of w7_url) (path_bytes w7_url) [PPush [120; 9; 121]; PExtend [[46; 46]; [99; 47; 37]; []]; PPop; PPush [233]]
     = [47;97;47;98;47;120;121;47;99;37;50;70;37;50;53;47;37;67;51;37;65;57].
Proof. exact session_exact_example. Qed.

Theorem C06_push_text_unfold : forall st P seg ss,
  push_text st P seg
  = (if list_eqb (filter not_tnl seg) [46] || list_eqb (filter not_tnl seg) [46; 46] then P
     else (if (1 <? nlen P) || (nlen P =? 0) then P ++ [47] else P)
          ++ encode (path_set CPathSegmentSetter st) (utf8_encode (filter not_tnl seg)))
  /\ extend_text st P ss = fold_left (push_text st) ss P
  /\ psm_skips seg = (list_eqb (filter not_tnl seg) [46] || list_eqb (filter not_tnl seg) [46; 46]).
Proof. intros. repeat split; reflexivity. Qed.
Check C06_push_text_unfold : forall st P seg ss,
  push_text st P seg
  = (if list_eqb (filter not_tnl seg) [46] || list_eqb (filter not_tnl seg) [46; 46] then P
     else (if (1 <? nlen P) || (nlen P =? 0) then P ++ [47] else P)
          ++ encode (path_set CPathSegmentSetter st) (utf8_encode (filter not_tnl seg)))
  /\ extend_text st P ss = fold_left (push_text st) ss P
  /\ psm_skips seg = (list_eqb (filter not_tnl seg) [46] || list_eqb (filter not_tnl seg) [46; 46]).
Print Assumptions C06_push_text_unfold.

Theorem C06_push_keeps_prefix : forall st P seg segs,
  (exists t, push_text st P seg = P ++ t) /\ (exists t, extend_text st P segs = P ++ t).
Proof. intros st P seg segs. split; [apply push_text_prefix | apply extend_text_prefix]. Qed.
Check C06_push_keeps_prefix : forall st P seg segs,
  (exists t, push_text st P seg = P ++ t) /\ (exists t, extend_text st P segs = P ++ t).
Print Assumptions C06_push_keeps_prefix.

(* s0 = the serialization in front of the path, P = the path text during the session *)
Theorem C06_7_class_exact : forall dbg st s0 ps P seg s', nlen s0 = ps -> st_is_file st = false -> usv_list seg ->
  psm_extend_loop dbg st ps (s0 ++ P) [seg] = Some s' -> s' = s0 ++ push_text st P seg.
Proof. exact push_exact. Qed.
Check C06_7_class_exact : forall dbg st s0 ps P seg s', nlen s0 = ps -> st_is_file st = false -> usv_list seg ->
  psm_extend_loop dbg st ps (s0 ++ P) [seg] = Some s' -> s' = s0 ++ push_text st P seg.
Print Assumptions C06_7_class_exact.

(* on "http://h/a/b" (s0 = "http://h", P = "/a/b"): a segment of the class of F-C06-7 is skipped, another one appended *)
Example C06_7_class_exact_inhabited :
  psm_extend_loop true STSpecialNotFile 8 (B "http://h" ++ B "/a/b") [[46; 9; 46]] = Some (B "http://h/a/b")
  /\ push_text STSpecialNotFile (B "/a/b") [46; 9; 46] = B "/a/b"
  /\ psm_extend_loop true STSpecialNotFile 8 (B "http://h" ++ B "/a/b") [[120; 9; 46]] = Some (B "http://h/a/b/x.")
  /\ push_text STSpecialNotFile (B "/a/b") [120; 9; 46] = B "/a/b/x.".
Proof. repeat split; vm_compute; reflexivity. Qed.

(* 26. path_segments_mut sessions and set_ip_host as STEPS of the histories (Proofs/C06_PushCanon.v, C06_AllPsm.v).
   C06_psm_canon: a whole session - any sequence of clear / pop / pop_if_empty / push / extend, ANY &str arguments
   (section 25) - on a canonical record (C02's Canon) with an authority returns a canonical record: the exact evaluation of
   section 25 is an operation on the canonical path (segments, last segment), and a pushed segment is a good segment
   of the class (clean for PATH, no '/', no '\' for special schemes, not a dot segment).
   ReachC6p (C06_AllPsm.v) = the histories of C06_all (ReachC6) + path_segments_mut sessions on URLs with an
   authority + set_path on the authority-less '/'-led layout without marker (premises of section 29, result not
   "//"-led) + every step of C02's ReachC3 (C02_Reach4.canon_op3 outside C02's known step classes: set_ip_host,
   set_host(Some), set_scheme, quirks protocol, set_path / quirks pathname with ANY &str on a URL with an authority).
   C06_all_p: every record of such a history is Canon, wfh, auth_end_ok, satisfies all_calls (C06_all) and
   psm_calls: a session returns a canonical record, which is with_path u (session_text ..) - path read-back explicit -
   with scheme / username / password / host / port / query / fragment unchanged.
   Hypotheses on the host functions: HostOK2 (C02: HostRT, host_above and the clause for the values set_ip_host is
   given) and host_nonempty (needed by C02's set_host(Some) step); the host model meets them (example below). *)
From RU Require Import Model.Host Proofs.C02_Hist Proofs.C16_RT6Model Proofs.C02_SetHostCanon Proofs.C02_Reach4 Proofs.C06_PushCanon Proofs.C06_AllPsm
  Proofs.C06_PsmEx.

Theorem C06_psm_canon : forall dbg hp hpo hd u ops u', HostRT hp hpo hd -> Canon hp hpo hd u ->
  has_authority_b u = true -> Forall psm_op_usv ops ->
  path_segments_session dbg u ops = Some (u', SOk) -> nlen (ser u') <= U32_MAX_P -> Canon hp hpo hd u'.
Proof. intros dbg hp hpo hd u ops u' HRT. exact (psm_Canon dbg hp hpo hd HRT u ops u'). Qed.
Check C06_psm_canon : forall dbg hp hpo hd u ops u', HostRT hp hpo hd -> Canon hp hpo hd u ->
  has_authority_b u = true -> Forall psm_op_usv ops ->
  path_segments_session dbg u ops = Some (u', SOk) -> nlen (ser u') <= U32_MAX_P -> Canon hp hpo hd u'.
Print Assumptions C06_psm_canon.

Definition C06_all_p_statement : Prop := forall dbg hp hpo hd u, HostOK2 hp hpo hd -> host_nonempty hp hpo ->
  ReachC6p dbg hp hpo hd u ->
  Canon hp hpo hd u /\ wfh u /\ auth_end_ok u /\ all_calls dbg hp hpo hd u /\ psm_calls dbg hp hpo hd u.

Theorem C06_all_p : C06_all_p_statement.
Proof. intros dbg hp hpo hd u HOK HNE. exact (all_reach_p dbg hp hpo hd HOK HNE u). Qed.
Check C06_all_p : forall dbg hp hpo hd u, HostOK2 hp hpo hd -> host_nonempty hp hpo ->
  ReachC6p dbg hp hpo hd u ->
  Canon hp hpo hd u /\ wfh u /\ auth_end_ok u /\ all_calls dbg hp hpo hd u /\ psm_calls dbg hp hpo hd u.
Print Assumptions C06_all_p.

(* psm_calls spelled out *)
Theorem C06_psm_calls_unfold : forall dbg hp hpo hd u, psm_calls dbg hp hpo hd u <->
  (forall ops u', has_authority_b u = true -> Forall psm_op_usv ops ->
    path_segments_session dbg u ops = Some (u', SOk) -> nlen (ser u') <= U32_MAX_P ->
    Canon hp hpo hd u' /\ u' = with_path u (session_text (st_of u) (path_bytes u) ops)
    /\ path u = Some (path_bytes u) /\ path u' = Some (session_text (st_of u) (path_bytes u) ops)
    /\ same_front dbg u u' /\ query dbg u' = query dbg u /\ fragment dbg u' = fragment dbg u).
Proof. intros. reflexivity. Qed.
Check C06_psm_calls_unfold : forall dbg hp hpo hd u, psm_calls dbg hp hpo hd u <->
  (forall ops u', has_authority_b u = true -> Forall psm_op_usv ops ->
    path_segments_session dbg u ops = Some (u', SOk) -> nlen (ser u') <= U32_MAX_P ->
    Canon hp hpo hd u' /\ u' = with_path u (session_text (st_of u) (path_bytes u) ops)
    /\ path u = Some (path_bytes u) /\ path u' = Some (session_text (st_of u) (path_bytes u) ops)
    /\ same_front dbg u u' /\ query dbg u' = query dbg u /\ fragment dbg u' = fragment dbg u).
Print Assumptions C06_psm_calls_unfold.

(* the histories of C06_all and of C02's ReachC3 are among them *)
Theorem C06_reach_c6_c3_p : forall dbg hp hpo hd u, HostOK2 hp hpo hd ->
  (ReachC6 dbg hp hpo hd u -> ReachC6p dbg hp hpo hd u) /\ (ReachC3 dbg hp hpo hd u -> ReachC6p dbg hp hpo hd u).
Proof. intros dbg hp hpo hd u HOK. split; [apply ReachC6_C6p | apply ReachC3_C6p]. Qed.
Check C06_reach_c6_c3_p : forall dbg hp hpo hd u, HostOK2 hp hpo hd ->
  (ReachC6 dbg hp hpo hd u -> ReachC6p dbg hp hpo hd u) /\ (ReachC3 dbg hp hpo hd u -> ReachC6p dbg hp hpo hd u).
Print Assumptions C06_reach_c6_c3_p.

(* non-vacuity, on the host model with the IDNA oracle idna_clean:
   parse "http://h/a/b" ; path_segments_mut { push("x<TAB>y"), pop, extend(["..", ".<TAB>.", "c d"]) } ; set_ip_host(127.0.0.1) *)
Example C06_all_p_inhabited :
  HostOK2 (host_parse idna_clean) host_parse_opaque host_display /\ host_nonempty (host_parse idna_clean) host_parse_opaque
  /\ exists u0 u1 u2, parse_url true (host_parse idna_clean) host_parse_opaque host_display None None (B "http://h/a/b") = POk u0
    /\ path_segments_session true u0 ex7_ops = Some (u1, SOk)
    /\ ReachC6p true (host_parse idna_clean) host_parse_opaque host_display u1
    /\ ser u1 = B "http://h/a/b/c%20d"
    /\ set_ip_host true host_display u1 (HIpv4 2130706433) = Some (u2, SOk)
    /\ ReachC6p true (host_parse idna_clean) host_parse_opaque host_display u2
    /\ ser u2 = B "http://127.0.0.1/a/b/c%20d".
Proof. exact reach6p_inhabited. Qed.

(* 27. WHOLE-URL parser agreement for the removal call set_host(None) (Proofs/C06_SpliceHostNone.v): on a canonical
   record with a host whose path starts with '/' but not with "//", a successful set_host(None) (special schemes
   refuse with EmptyHost) returns the canonical record WITHOUT authority; its serialization is the old one with
   "//userinfo@host:port" cut out (cut_host, read off the record) and Parser::parse_url on that text returns exactly
   the setter's record.  The exclusions are the known classes: empty path at the end of the serialization (F-C06-5:
   the path becomes "/"), empty path followed by a query / fragment (F-C04-1: debug assertion; a release build
   returns an opaque-path URL), "//"-led path (F-C02-2: no "/." marker) - witnesses in C06_known_refuted. *)
From RU Require Import Proofs.C06_SpliceHostNone.

Theorem C06_splice_agreement_remove_host : forall dbg hp hpo hd u u', HostRT hp hpo hd -> Canon hp hpo hd u ->
  has_host u = true -> byte_eqb (ser u) (path_start u) 47 = true -> path_starts_with_2slash u = false ->
  set_host dbg hp hpo hd u None = Some (u', SOk) ->
  Canon hp hpo hd u' /\ ser u' = cut_host u /\ parse_url dbg hp hpo hd None None (cut_host u) = POk u'.
Proof. intros dbg hp hpo hd u u' HRT. exact (splice_agreement_remove_host dbg hp hpo hd HRT u u'). Qed.
Check C06_splice_agreement_remove_host : forall dbg hp hpo hd u u', HostRT hp hpo hd -> Canon hp hpo hd u ->
  has_host u = true -> byte_eqb (ser u) (path_start u) 47 = true -> path_starts_with_2slash u = false ->
  set_host dbg hp hpo hd u None = Some (u', SOk) ->
  Canon hp hpo hd u' /\ ser u' = cut_host u /\ parse_url dbg hp hpo hd None None (cut_host u) = POk u'.
Print Assumptions C06_splice_agreement_remove_host.

(* on "a://h:80/p?q#f" the cut text is "a:/p?q#f" *)
Example C06_splice_agreement_remove_host_inhabited :
  Canon ex_hp ex_hp ex_hd qx_u /\ has_host qx_u = true /\ byte_eqb (ser qx_u) (path_start qx_u) 47 = true
  /\ path_starts_with_2slash qx_u = false
  /\ (exists u', set_host true ex_hp ex_hp ex_hd qx_u None = Some (u', SOk) /\ ser u' = B "a:/p?q#f")
  /\ cut_host qx_u = B "a:/p?q#f".
Proof.
  split; [exact (proj1 splice_canon_examples)|]. split; [vm_compute; reflexivity|]. split; [vm_compute; reflexivity|].
  split; [vm_compute; reflexivity|]. split; [eexists; split; vm_compute; reflexivity | vm_compute; reflexivity].
Qed.

(* 28. WHOLE-URL parser agreement for set_scheme (Proofs/C06_SpliceScheme.v).  Changing the scheme changes how
   everything behind it is parsed, so it is a splice only inside one scheme class - which is all the setter allows on
   canonical records (non-special -> non-special, special non-file -> special non-file).  For a RAW argument of the
   class scheme_arg (a letter, then letters / digits / '+' '-' '.', ANY case; no ':' and no TAB/LF/CR) and a call that
   keeps the port (port u' = port u: leaves out exactly the coupling "a port equal to the new default is dropped",
   C06_couple), Parser::parse_url on  argument ++ old text from the ':' on  (splice_scheme) returns exactly the setter's
   record, whose scheme is the lower-cased argument.  All four canonical classes (opaque, '/'-led without authority,
   authority non-special, authority special non-file). *)
From RU Require Import Proofs.C06_SpliceScheme.

Theorem C06_splice_agreement_set_scheme : forall dbg hp hpo hd u x u', HostRT hp hpo hd -> Canon hp hpo hd u ->
  scheme_arg x = true -> set_scheme dbg u x = Some (u', SOk) -> nlen (ser u') <= U32_MAX_P -> port u' = port u ->
  Canon hp hpo hd u' /\ scheme u' = Some (lower_text x)
  /\ parse_url dbg hp hpo hd None None (splice_scheme u x) = POk u'.
Proof. intros dbg hp hpo hd u x u' HRT. exact (splice_agreement_set_scheme dbg hp hpo hd HRT u x u'). Qed.
Check C06_splice_agreement_set_scheme : forall dbg hp hpo hd u x u', HostRT hp hpo hd -> Canon hp hpo hd u ->
  scheme_arg x = true -> set_scheme dbg u x = Some (u', SOk) -> nlen (ser u') <= U32_MAX_P -> port u' = port u ->
  Canon hp hpo hd u' /\ scheme u' = Some (lower_text x)
  /\ parse_url dbg hp hpo hd None None (splice_scheme u x) = POk u'.
Print Assumptions C06_splice_agreement_set_scheme.

(* "http://u:p@h/p" -> set_scheme("WS") -> "ws://u:p@h/p" (splice "WS://u:p@h/p");
   "a://h:80/p?q#f" -> set_scheme("B+c") -> "b+c://h:80/p?q#f" *)
Example C06_splice_agreement_set_scheme_inhabited :
  scheme_arg (B "WS") = true /\ scheme_arg (B "B+c") = true
  /\ (exists u', set_scheme true sx_u (B "WS") = Some (u', SOk) /\ ser u' = B "ws://u:p@h/p" /\ port u' = port sx_u)
  /\ splice_scheme sx_u (B "WS") = B "WS://u:p@h/p"
  /\ (exists u', set_scheme true qx_u (B "B+c") = Some (u', SOk) /\ ser u' = B "b+c://h:80/p?q#f" /\ port u' = port qx_u)
  /\ splice_scheme qx_u (B "B+c") = B "B+c://h:80/p?q#f".
Proof.
  split; [vm_compute; reflexivity|]. split; [vm_compute; reflexivity|].
  split; [eexists; split; [vm_compute; reflexivity | split; vm_compute; reflexivity]|].
  split; [vm_compute; reflexivity|].
  split; [eexists; split; [vm_compute; reflexivity | split; vm_compute; reflexivity]|].
  vm_compute; reflexivity.
Qed.

(* 29. WHOLE-URL parser agreement for set_path on the AUTHORITY-LESS layout (Proofs/C06_SpliceNoAuth.v): canonical record
   without authority whose path starts with '/' and that carries no "/." marker (path_start = scheme_end + 1).
   Argument: '/'-led, a &str free of '?' / '#', whose next character (TAB/LF/CR skipped) is not a second '/' (the parser
   would read an authority there: not a splice of the path), not ending in C0 / space when neither query nor fragment
   follows.  Result: not starting with "//" (path_starts_with_2slash u' = false; otherwise F-C02-8: the parser inserts
   the "/." marker where the setter does not - exact by C06_frame_path_noauth_exact).  Then the setter's record is
   canonical and Parser::parse_url on the old serialization with the RAW argument in the path position returns exactly it.
   NOT covered: the marker layout ("a:/.//p"), opaque paths (F-C02-3), file URLs. *)
From RU Require Import Proofs.C06_SpliceNoAuth.

Theorem C06_splice_agreement_set_path_noauth : forall dbg hp hpo hd u rest u', Canon hp hpo hd u ->
  has_authority_b u = false -> byte_eqb (ser u) (scheme_end u + 1) 47 = true -> path_start u = scheme_end u + 1 ->
  usv_list (47 :: rest) -> forallb no_qh (47 :: rest) = true -> inp_starts_with_char 47 rest = false ->
  (query_start u = None -> fragment_start u = None -> first_ok (rev (47 :: rest))) ->
  set_path dbg u (47 :: rest) = Some u' -> nlen (ser u') <= U32_MAX_P ->
  path_starts_with_2slash u' = false ->
  Canon hp hpo hd u' /\ parse_url dbg hp hpo hd None None (splice_path u (47 :: rest)) = POk u'.
Proof. exact splice_agreement_set_path_noauth. Qed.
Check C06_splice_agreement_set_path_noauth : forall dbg hp hpo hd u rest u', Canon hp hpo hd u ->
  has_authority_b u = false -> byte_eqb (ser u) (scheme_end u + 1) 47 = true -> path_start u = scheme_end u + 1 ->
  usv_list (47 :: rest) -> forallb no_qh (47 :: rest) = true -> inp_starts_with_char 47 rest = false ->
  (query_start u = None -> fragment_start u = None -> first_ok (rev (47 :: rest))) ->
  set_path dbg u (47 :: rest) = Some u' -> nlen (ser u') <= U32_MAX_P ->
  path_starts_with_2slash u' = false ->
  Canon hp hpo hd u' /\ parse_url dbg hp hpo hd None None (splice_path u (47 :: rest)) = POk u'.
Print Assumptions C06_splice_agreement_set_path_noauth.

(* "a:/p" -> set_path("/x y/../z") -> "a:/z"; the spliced text is "a:/x y/../z" *)
Example C06_splice_agreement_set_path_noauth_inhabited :
  Canon ex_hp ex_hp ex_hd na_u /\ ser na_u = B "a:/p" /\ has_authority_b na_u = false
  /\ byte_eqb (ser na_u) (scheme_end na_u + 1) 47 = true /\ path_start na_u = scheme_end na_u + 1
  /\ usv_list (B "/x y/../z") /\ forallb no_qh (B "/x y/../z") = true
  /\ inp_starts_with_char 47 (B "x y/../z") = false
  /\ first_ok (rev (B "/x y/../z"))
  /\ (exists u', set_path true na_u (B "/x y/../z") = Some u' /\ ser u' = B "a:/z" /\ path_starts_with_2slash u' = false)
  /\ splice_path na_u (B "/x y/../z") = B "a:/x y/../z".
Proof. exact (splice_noauth_inhabited ex_hp ex_hp ex_hd). Qed.

(* 30. push is also exact (every &str segment) on file URLs whose path is longer than "/" and does not start with "//"
   (file_path_inv; true of every parsed file URL): parse_path's file-only steps - a '/' inserted behind a normalized
   drive letter that is the whole path so far, the rewriting of a drive-letter first segment "C|" to "C:", the collapse
   of leading slashes - cannot occur there.  On the root path "/" they can (file:/// push("C|") gives file:///C:,
   push("C:<TAB>x") gives file:///C:/x - two segments from one push; the crate does the same): sessions that
   start at or pass through the root path are section 31. *)
Theorem C06_7_class_exact_file : forall dbg s0 ps P seg s', nlen s0 = ps -> 1 < nlen P -> file_path_inv P -> usv_list seg ->
  psm_extend_loop dbg STFile ps (s0 ++ P) [seg] = Some s' -> s' = s0 ++ push_text STFile P seg.
Proof. exact push_exact_file. Qed.
Check C06_7_class_exact_file : forall dbg s0 ps P seg s', nlen s0 = ps -> 1 < nlen P -> file_path_inv P -> usv_list seg ->
  psm_extend_loop dbg STFile ps (s0 ++ P) [seg] = Some s' -> s' = s0 ++ push_text STFile P seg.
Print Assumptions C06_7_class_exact_file.

(* on "file:///a/b" (s0 = "file://", P = "/a/b"): push(".<TAB>.") is skipped, push("C|") is appended verbatim;
   on the root path "/" push("C|") is rewritten to "C:" (outside the premise 1 < nlen P) *)
Example C06_7_class_exact_file_inhabited :
  file_path_inv (B "/a/b") /\ (exists c r, B "/a/b" = 47 :: c :: r /\ c <> 47)
  /\ psm_extend_loop true STFile 7 (B "file://" ++ B "/a/b") [[46; 9; 46]] = Some (B "file:///a/b")
  /\ psm_extend_loop true STFile 7 (B "file://" ++ B "/a/b") [B "C|"] = Some (B "file:///a/b/C|")
  /\ push_text STFile (B "/a/b") (B "C|") = B "/a/b/C|"
  /\ psm_extend_loop true STFile 7 (B "file://" ++ B "/") [B "C|"] = Some (B "file:///C:")
  /\ push_text STFile (B "/") (B "C|") = B "/C|".
Proof.
  assert (file_path_inv (B "/a/b")) as H by (exists 97, (B "/b"); split; [reflexivity | discriminate]).
  split; [exact H|]. split; [exact H|]. repeat split; vm_compute; reflexivity.
Qed.

(* 31. WHOLE path_segments_mut sessions on FILE URLs, exactly (Proofs/C06_SegFile.v, witnesses in C06_SegFileEx.v).
   file_path_ok P: the path text is exactly "/" or starts with '/' followed by a byte other than '/' (every parsed file
   URL); every operation of a session keeps it.  file_session_ok P ops - computable on the old path text and the
   arguments alone - asks of every push (also inside extend) made while the path is exactly "/" that the segment is
   skipped ("." / "..") or root_seg_ok: (a) flush_ok - parse_path flushes its pending text at every TAB / LF / CR of the
   argument; no character of the argument comes behind a flush that left exactly a drive letter "C:" as the path (it
   would get a '/' in front) - and (b) the text push writes (seg_text: percent-encoding of the TAB/LF/CR-free argument)
   is not a letter followed by '|' (it would be rewritten to "C:").  Arguments without TAB / LF / CR meet (a).  Pushes on
   longer paths and clear / pop / pop_if_empty are unrestricted.  Then the session returns
   with_path u (session_text STFile ..) - the record of C06_frame_path, as in C06_frame_segments_exact - and the new
   path text satisfies file_path_ok again.
   Sessions of push / extend only on a path longer than "/" always meet the condition (C06_file_push_only_ok).
   The condition is needed (C06_frame_segments_file_root_refuted): file:/// push("C|") gives file:///C: and
   push("C:<TAB>x") gives file:///C:/x (two segments from one push) where push_text is "/C|" resp. "/C:x";
   push("C:"), push("c:x"), push("C<TAB>:"), push("C:<TAB>") at the root are covered (appended verbatim). *)
From RU Require Import Proofs.C06_SegFile Proofs.C06_SegFileEx.

Theorem C06_frame_segments_exact_file : forall dbg u ops u', wf_b u = true ->
  byte_eqb (ser u) (scheme_end u + 1) 47 = true -> st_of u = STFile ->
  file_path_ok (path_bytes u) = true -> file_session_ok (path_bytes u) ops = true ->
  Forall psm_op_usv ops -> path_segments_session dbg u ops = Some (u', SOk) ->
  path u = Some (path_bytes u) /\ u' = with_path u (session_text STFile (path_bytes u) ops)
  /\ file_path_ok (session_text STFile (path_bytes u) ops) = true.
Proof.
  intros dbg u ops u' W Hsl Hf HP Hok Hu H. split; [exact (path_text_is_path u W)|].
  split; [exact (path_segments_session_exact_file dbg u ops u' W Hsl Hf HP Hok Hu H) | exact (session_text_ok ops (path_bytes u) HP)].
Qed.
Check C06_frame_segments_exact_file : forall dbg u ops u', wf_b u = true ->
  byte_eqb (ser u) (scheme_end u + 1) 47 = true -> st_of u = STFile ->
  file_path_ok (path_bytes u) = true -> file_session_ok (path_bytes u) ops = true ->
  Forall psm_op_usv ops -> path_segments_session dbg u ops = Some (u', SOk) ->
  path u = Some (path_bytes u) /\ u' = with_path u (session_text STFile (path_bytes u) ops)
  /\ file_path_ok (session_text STFile (path_bytes u) ops) = true.
Print Assumptions C06_frame_segments_exact_file.

(* the premises are met: file:///tmp/a (a parse result) with push("b"), push("C|"), pop - the drive-letter-like segment
   is appended verbatim behind "/tmp/a/b" and removed by pop *)
Example C06_frame_segments_exact_file_inhabited :
  wf_b ft_url = true /\ byte_eqb (ser ft_url) (scheme_end ft_url + 1) 47 = true /\ st_of ft_url = STFile
  /\ path_bytes ft_url = B "/tmp/a" /\ file_path_ok (path_bytes ft_url) = true
  /\ file_session_ok (path_bytes ft_url) ft_ops = true /\ Forall psm_op_usv ft_ops
  /\ path_segments_session true ft_url ft_ops = Some (with_path ft_url (B "/tmp/a/b"), SOk)
  /\ session_text STFile (path_bytes ft_url) ft_ops = B "/tmp/a/b"
  /\ session_text STFile (path_bytes ft_url) [PPush (B "b"); PPush (B "C|")] = B "/tmp/a/b/C|"
  /\ path_segments_session true ft_url [PPush (B "b"); PPush (B "C|")] = Some (with_path ft_url (B "/tmp/a/b/C|"), SOk)
  /\ ser (with_path ft_url (B "/tmp/a/b/C|")) = B "file:///tmp/a/b/C|".
Proof. exact file_session_example. Qed.

Example C06_file_example_records :
  ft_ops = [PPush (B "b"); PPush (B "C|"); PPop]
  /\ fr_ops = [PExtend [B "etc"; []; B "C|"]; PClear; PPush [67; 9; 58]; PPush [99; 9; 37]]
  /\ parse_url true (host_parse idna_clean) host_parse_opaque host_display None None (B "file:///tmp/a") = POk ft_url
  /\ parse_url true (host_parse idna_clean) host_parse_opaque host_display None None (B "file:///") = POk fr_url.
Proof. split; [reflexivity|]. split; [reflexivity|]. exact file_urls_parsed. Qed.

(* the root path: extend(["etc", "", "C|"]), clear, push("C<TAB>:"), push("c<TAB>%") on file:/// *)
Example C06_frame_segments_exact_file_root_inhabited :
  wf_b fr_url = true /\ byte_eqb (ser fr_url) (scheme_end fr_url + 1) 47 = true /\ st_of fr_url = STFile
  /\ path_bytes fr_url = B "/" /\ file_path_ok (path_bytes fr_url) = true
  /\ file_session_ok (path_bytes fr_url) fr_ops = true /\ Forall psm_op_usv fr_ops
  /\ path_segments_session true fr_url fr_ops = Some (with_path fr_url (B "/C:/c%25"), SOk)
  /\ session_text STFile (path_bytes fr_url) fr_ops = B "/C:/c%25"
  /\ session_text STFile (path_bytes fr_url) [PExtend [B "etc"; []; B "C|"]] = B "/etc//C|"
  /\ root_seg_ok (B "etc") = true /\ root_seg_ok [] = true /\ root_seg_ok (B "C:") = true /\ root_seg_ok (B "c:x") = true
  /\ root_seg_ok [67; 9; 58] = true /\ root_seg_ok [67; 58; 9] = true /\ root_seg_ok (B "c|x") = true
  /\ root_seg_ok (B "C|") = false /\ root_seg_ok [67; 9; 124] = false /\ root_seg_ok [67; 58; 9; 120] = false
  /\ path_segments_session true fr_url [PPush (B "c:x")] = Some (with_path fr_url (B "/c:x"), SOk)
  /\ path_segments_session true fr_url [PPush [67; 58; 9]] = Some (with_path fr_url (B "/C:"), SOk).
Proof. exact file_root_session_example. Qed.

(* the side conditions spelled out *)
Theorem C06_file_session_ok_unfold : forall P o ops a c r seg s segs acc pend,
  file_path_ok [] = false /\ file_path_ok [a] = (a =? 47) /\ file_path_ok (a :: c :: r) = ((a =? 47) && negb (c =? 47))
  /\ file_session_ok P [] = true
  /\ file_session_ok P (o :: ops) = (op_ok P o && file_session_ok (op_text STFile P o) ops)
  /\ op_ok P PClear = true /\ op_ok P PPop = true /\ op_ok P PPopIfEmpty = true
  /\ op_ok P (PPush seg) = push_ok P seg /\ op_ok P (PExtend []) = true
  /\ op_ok P (PExtend (s :: segs)) = (push_ok P s && op_ok (push_text STFile P s) (PExtend segs))
  /\ push_ok P seg = (psm_skips seg || fpi_b P || root_seg_ok seg)
  /\ fpi_b (a :: c :: r) = ((a =? 47) && negb (c =? 47)) /\ fpi_b [a] = false /\ fpi_b [] = false
  /\ root_seg_ok seg = (flush_ok [] [] seg
                        && negb (match encode (path_set CPathSegmentSetter STFile) (utf8_encode (filter not_tnl seg)) with
                                 | [x; y] => is_alpha x && (y =? 124) | _ => false end))
  /\ flush_ok acc pend [] = true
  /\ flush_ok acc pend (a :: r)
     = (if is_tnl a then flush_ok (acc ++ rev pend) [] r
        else negb (is_normalized_wdl (encode (path_set CPathSegmentSetter STFile) (utf8_encode acc))) && flush_ok acc (a :: pend) r).
Proof. intros. repeat split; reflexivity. Qed.
Check C06_file_session_ok_unfold : forall P o ops a c r seg s segs acc pend,
  file_path_ok [] = false /\ file_path_ok [a] = (a =? 47) /\ file_path_ok (a :: c :: r) = ((a =? 47) && negb (c =? 47))
  /\ file_session_ok P [] = true
  /\ file_session_ok P (o :: ops) = (op_ok P o && file_session_ok (op_text STFile P o) ops)
  /\ op_ok P PClear = true /\ op_ok P PPop = true /\ op_ok P PPopIfEmpty = true
  /\ op_ok P (PPush seg) = push_ok P seg /\ op_ok P (PExtend []) = true
  /\ op_ok P (PExtend (s :: segs)) = (push_ok P s && op_ok (push_text STFile P s) (PExtend segs))
  /\ push_ok P seg = (psm_skips seg || fpi_b P || root_seg_ok seg)
  /\ fpi_b (a :: c :: r) = ((a =? 47) && negb (c =? 47)) /\ fpi_b [a] = false /\ fpi_b [] = false
  /\ root_seg_ok seg = (flush_ok [] [] seg
                        && negb (match encode (path_set CPathSegmentSetter STFile) (utf8_encode (filter not_tnl seg)) with
                                 | [x; y] => is_alpha x && (y =? 124) | _ => false end))
  /\ flush_ok acc pend [] = true
  /\ flush_ok acc pend (a :: r)
     = (if is_tnl a then flush_ok (acc ++ rev pend) [] r
        else negb (is_normalized_wdl (encode (path_set CPathSegmentSetter STFile) (utf8_encode acc))) && flush_ok acc (a :: pend) r).
Print Assumptions C06_file_session_ok_unfold.

(* sessions of push / extend only, on a path longer than "/" (fpi_b), meet the side condition - every &str argument *)
Theorem C06_file_push_only_ok : forall P ops, fpi_b P = true -> forallb push_only ops = true ->
  file_path_ok P = true /\ file_session_ok P ops = true.
Proof. intros P ops H Ho. split; [exact (fpi_file_path_ok P H) | exact (push_only_session_ok ops P H Ho)]. Qed.
Check C06_file_push_only_ok : forall P ops, fpi_b P = true -> forallb push_only ops = true ->
  file_path_ok P = true /\ file_session_ok P ops = true.
Print Assumptions C06_file_push_only_ok.

Example C06_file_push_only_ok_inhabited :
  fpi_b (B "/tmp/a") = true /\ forallb push_only [PPush (B "C|"); PExtend [B "c:"; [67; 58; 9; 120]]] = true
  /\ push_only PPop = false /\ push_only PClear = false /\ push_only PPopIfEmpty = false.
Proof. repeat split; vm_compute; reflexivity. Qed.

(* the side condition on pushes at the root path is needed *)
Theorem C06_frame_segments_file_root_refuted :
  wf_b fr_url = true /\ st_of fr_url = STFile /\ file_path_ok (path_bytes fr_url) = true
  /\ file_session_ok (path_bytes fr_url) [PPush (B "C|")] = false
  /\ path_segments_session true fr_url [PPush (B "C|")] = Some (with_path fr_url (B "/C:"), SOk)
  /\ session_text STFile (path_bytes fr_url) [PPush (B "C|")] = B "/C|"
  /\ file_session_ok (path_bytes fr_url) [PPush [67; 58; 9; 120]] = false
  /\ path_segments_session true fr_url [PPush [67; 58; 9; 120]] = Some (with_path fr_url (B "/C:/x"), SOk)
  /\ session_text STFile (path_bytes fr_url) [PPush [67; 58; 9; 120]] = B "/C:x"
  /\ (exists ops u', Forall psm_op_usv ops /\ path_segments_session true fr_url ops = Some (u', SOk)
        /\ u' <> with_path fr_url (session_text STFile (path_bytes fr_url) ops)).
Proof. exact file_root_refuted. Qed.
Check C06_frame_segments_file_root_refuted :
  wf_b fr_url = true /\ st_of fr_url = STFile /\ file_path_ok (path_bytes fr_url) = true
  /\ file_session_ok (path_bytes fr_url) [PPush (B "C|")] = false
  /\ path_segments_session true fr_url [PPush (B "C|")] = Some (with_path fr_url (B "/C:"), SOk)
  /\ session_text STFile (path_bytes fr_url) [PPush (B "C|")] = B "/C|"
  /\ file_session_ok (path_bytes fr_url) [PPush [67; 58; 9; 120]] = false
  /\ path_segments_session true fr_url [PPush [67; 58; 9; 120]] = Some (with_path fr_url (B "/C:/x"), SOk)
  /\ session_text STFile (path_bytes fr_url) [PPush [67; 58; 9; 120]] = B "/C:x"
  /\ (exists ops u', Forall psm_op_usv ops /\ path_segments_session true fr_url ops = Some (u', SOk)
        /\ u' <> with_path fr_url (session_text STFile (path_bytes fr_url) ops)).
Print Assumptions C06_frame_segments_file_root_refuted.

(* 32. The premises of section 31 hold of every canonical file record of C02 (FileCanon: every parse result of a file URL
   without base outside Known_file_drive - C02_parse_file_Canon5 -, closed under set_query / set_fragment, the results of
   from_file_path): well-formed, '/' behind the scheme, scheme type file, path text "/" or '/' followed by a byte other
   than '/' (Proofs/C06_SegFileCanon.v).  So on such a record only the side condition on the session remains. *)
From RU Require Import Proofs.C02_FileCanon Proofs.C06_SegFileCanon.

Theorem C06_frame_segments_FileCanon : forall dbg hp hpo hd u ops u', HostRT hp hpo hd -> FileCanon hp hd u ->
  file_session_ok (path_bytes u) ops = true -> Forall psm_op_usv ops ->
  path_segments_session dbg u ops = Some (u', SOk) ->
  (wf_b u = true /\ byte_eqb (ser u) (scheme_end u + 1) 47 = true /\ st_of u = STFile /\ file_path_ok (path_bytes u) = true)
  /\ path u = Some (path_bytes u) /\ u' = with_path u (session_text STFile (path_bytes u) ops)
  /\ file_path_ok (session_text STFile (path_bytes u) ops) = true.
Proof.
  intros dbg hp hpo hd u ops u' HRT K Hok Hu H. split; [exact (FileCanon_session_premises dbg hp hpo hd HRT u K)|].
  exact (psm_session_FileCanon dbg hp hpo hd HRT u ops u' K Hok Hu H).
Qed.
Check C06_frame_segments_FileCanon : forall dbg hp hpo hd u ops u', HostRT hp hpo hd -> FileCanon hp hd u ->
  file_session_ok (path_bytes u) ops = true -> Forall psm_op_usv ops ->
  path_segments_session dbg u ops = Some (u', SOk) ->
  (wf_b u = true /\ byte_eqb (ser u) (scheme_end u + 1) 47 = true /\ st_of u = STFile /\ file_path_ok (path_bytes u) = true)
  /\ path u = Some (path_bytes u) /\ u' = with_path u (session_text STFile (path_bytes u) ops)
  /\ file_path_ok (session_text STFile (path_bytes u) ops) = true.
Print Assumptions C06_frame_segments_FileCanon.

(* file://h.example/a/b%20c?q#f with pop, pop, pop (down to "/"), push("d e"), push("C|") gives file://h.example/d%20e/C|?q#f *)
Example C06_frame_segments_FileCanon_inhabited :
  HostRT ex_hp ex_hp ex_hd /\ FileCanon ex_hp ex_hd fc_url /\ ser fc_url = B "file://h.example/a/b%20c?q#f"
  /\ file_session_ok (path_bytes fc_url) fc_ops = true /\ Forall psm_op_usv fc_ops
  /\ session_text STFile (path_bytes fc_url) fc_ops = B "/d%20e/C|"
  /\ session_text STFile (path_bytes fc_url) [PPop; PPop; PPop] = B "/"
  /\ path_segments_session true fc_url fc_ops = Some (with_path fc_url (B "/d%20e/C|"), SOk)
  /\ ser (with_path fc_url (B "/d%20e/C|")) = B "file://h.example/d%20e/C|?q#f".
Proof. exact file_canon_session_example. Qed.

(* 33. The session RESULT on a canonical file record is canonical again (Proofs/C06_SegFileCls.v, C06_SegFileClsEx.v).
   C06_psm_canon_file: for a FileCanon record u of C02 and any sequence of clear / pop / pop_if_empty / push / extend with
   ANY &str arguments whose pushed segments, after the removal of TAB / LF / CR, do not begin with an ASCII letter followed by
   ':' or '|' (session_arg_nd: computable on the arguments alone; it implies file_session_ok on every path text -
   C06_session_arg_nd_ok), the returned record is FileCanon again and is with_path u (session_text STFile (path_bytes u) ops).
   The proof follows C06_psm_canon: the session is an operation on the canonical path (segments, last segment); a pushed
   segment is clean for PATH, free of '/' and '\', not a dot segment and - by the side condition - not drive-letter-like
   (fseg_ok); the first segment stays non-empty.  The side condition is needed: clear, push("C|") on file:///tmp/a returns
   file:///C:, a record of C02's class Known_file_drive (in the example). *)
From RU Require Import Proofs.C06_SegFileCls Proofs.C06_SegFileClsEx.

Theorem C06_psm_canon_file : forall dbg hp hpo hd u ops u', HostRT hp hpo hd -> FileCanon hp hd u ->
  session_arg_nd ops = true -> Forall psm_op_usv ops ->
  path_segments_session dbg u ops = Some (u', SOk) -> nlen (ser u') <= U32_MAX_P ->
  FileCanon hp hd u' /\ u' = with_path u (session_text STFile (path_bytes u) ops).
Proof. intros dbg hp hpo hd u ops u' HRT. exact (psm_FileCanon_arg dbg hp hpo hd HRT u ops u'). Qed.
Check C06_psm_canon_file : forall dbg hp hpo hd u ops u', HostRT hp hpo hd -> FileCanon hp hd u ->
  session_arg_nd ops = true -> Forall psm_op_usv ops ->
  path_segments_session dbg u ops = Some (u', SOk) -> nlen (ser u') <= U32_MAX_P ->
  FileCanon hp hd u' /\ u' = with_path u (session_text STFile (path_bytes u) ops).
Print Assumptions C06_psm_canon_file.

(* the weaker side condition on the WRITTEN texts (session_nd: the percent-encoded text of every pushed segment that is
   not skipped does not begin like a drive letter) suffices *)
Theorem C06_psm_canon_file_nd : forall dbg hp hpo hd u ops u', HostRT hp hpo hd -> FileCanon hp hd u ->
  session_nd ops = true -> Forall psm_op_usv ops ->
  path_segments_session dbg u ops = Some (u', SOk) -> nlen (ser u') <= U32_MAX_P ->
  FileCanon hp hd u' /\ u' = with_path u (session_text STFile (path_bytes u) ops).
Proof. intros dbg hp hpo hd u ops u' HRT. exact (psm_FileCanon_nd dbg hp hpo hd HRT u ops u'). Qed.
Check C06_psm_canon_file_nd : forall dbg hp hpo hd u ops u', HostRT hp hpo hd -> FileCanon hp hd u ->
  session_nd ops = true -> Forall psm_op_usv ops ->
  path_segments_session dbg u ops = Some (u', SOk) -> nlen (ser u') <= U32_MAX_P ->
  FileCanon hp hd u' /\ u' = with_path u (session_text STFile (path_bytes u) ops).
Print Assumptions C06_psm_canon_file_nd.

(* the side conditions are ordered: on the arguments => on the written texts => file_session_ok on every path text *)
Theorem C06_session_arg_nd_ok : forall ops P, session_arg_nd ops = true ->
  session_nd ops = true /\ file_session_ok P ops = true.
Proof.
  intros ops P H. pose proof (session_arg_nd_nd ops H) as H2. split; [exact H2 | exact (session_nd_ok ops P H2)].
Qed.
Check C06_session_arg_nd_ok : forall ops P, session_arg_nd ops = true ->
  session_nd ops = true /\ file_session_ok P ops = true.
Print Assumptions C06_session_arg_nd_ok.

(* file:///tmp/a: pop, push("b c"), pop_if_empty, extend(["..", "<TAB>d"]), push("1:") gives file:///tmp/b%20c/d/1:;
   one push, one pop; and the excluded clear, push("C|") *)
Example C06_psm_canon_file_inhabited :
  HostRT ex_hp ex_hp ex_hd /\ FileCanon ex_hp ex_hd fx_url /\ ser fx_url = B "file:///tmp/a"
  /\ session_arg_nd fx_ops = true /\ Forall psm_op_usv fx_ops
  /\ path_segments_session true fx_url fx_ops = Some (fx_res, SOk)
  /\ ser fx_res = B "file:///tmp/b%20c/d/1:" /\ FileCanon ex_hp ex_hd fx_res
  /\ (exists u1, path_segments_session true fx_url [PPush (B "x y")] = Some (u1, SOk) /\ ser u1 = B "file:///tmp/a/x%20y"
                 /\ FileCanon ex_hp ex_hd u1)
  /\ (exists u2, path_segments_session true fx_url [PPop] = Some (u2, SOk) /\ ser u2 = B "file:///tmp"
                 /\ FileCanon ex_hp ex_hd u2)
  /\ session_arg_nd [PClear; PPush (B "C|")] = false
  /\ (exists u3, path_segments_session true fx_url [PClear; PPush (B "C|")] = Some (u3, SOk) /\ ser u3 = B "file:///C:"
                 /\ Known_file_drive u3 = true).
Proof. exact file_tmp_a_session. Qed.
