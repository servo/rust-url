(* Properties/C07.v - the browser-interoperability setters (url::quirks) behave as the attribute
   setters of the WHATWG URL Standard.
   Model side: Model/Setters.v q_set_* (href = Model/Parser.v parse_url without a base), as the code is.
   Standard side: Spec/Whatwg.v spec_set (validated on every run against all 254 WPT setter vectors).
   Known_C07 (Model/KnownC07.v known_c07): the computable classes of (URL, setter, value) on which
   rust-url is known to leave the Standard (F-C07-1..12); every class is refuted by a witness.

   The full statement (C07_statement: outside Known_C07 the two sides show the same ten API strings
   after every assignment) is stated and NOT proved in general.  Proved here:
     C07_histories            one assignment => every sequence of assignments (any abstraction relation)
     C07_statement_histories  C07_statement => the ten API strings agree after every prefix of a history
     C07_small_scope / C07_small_histories / C07_protocol_table
                              C07_statement's conclusion on a small scope (20 URLs x 10 setters x 71 values; 6 URLs x
                              32 x 32 two-step histories; 15 URLs x 14 protocol values), with small host functions on
                              both sides: by computation inside Coq where a host function is asked (href, host,
                              hostname; the two-step histories), otherwise as instances of the one-step theorems below
     C07_search_hash, C07_search_hash_get, C07_protocol_colon, C07_cannot_have,
     C07_cannot_have_standard, C07_protocol_decision, C07_protocol_rule, C07_atomic_ignore
                              clauses of the Standard's setters, for all records / values
     C07_known_refuted        every class of Known_C07 contains a divergence (F-C07-1..12)
     C07_hash_equiv, C07_search_equiv, C07_username_equiv, C07_password_equiv, C07_port_equiv
                              C07_statement's one-step clause for five of the ten setters, for ALL records
                              related by corr (Proofs/C07_Corr.v: component-wise correspondence of a
                              well-formed model record and a URL record of the Standard), ALL values and
                              ALL host functions: no panic, no fuel exhaustion, related again, same ten
                              API strings (port: outside class 8 of Known_C07, F-C07-9)
     C07_corr_api             records related by corr show the same ten API strings
     C07_five_setters_partial / C07_five_histories
                              the same for any one of the five / along every history of the five
     C07_five_small_starts    the 20 start URLs of the small scope are related to their Standard's parse;
                              for them: all histories of the five setters, all values
     C07_opaque_class_corr / C07_five_opaque_class
                              the second clause of C07_statement (parsing yields related records) for the
                              opaque-path class of inputs (non-special scheme, rest not led by '/'), and
                              with it the statement for that class x the five setters x all histories
     C07_protocol_equiv, C07_six_setters_partial / C07_six_histories, C07_sane_kept, C07_protocol_needs_sane
                              the same for protocol (outside class 6, F-C07-7) with the relation corrS = corr +
                              the invariants `sane` of the Standard's record (needed: witness), six setters
     C07_hostname_equiv, C07_seven_setters_partial / C07_seven_histories
                              the same for hostname on non-file URLs (outside classes 2, 3, 4), host parsers =
                              arbitrary agreeing functions (host_fns_ok); seven setters
     C07_protocol_standard_closed, C07_hostname_standard_closed
                              the Standard's protocol / hostname setters in closed form
     C07_opaque_class_corrS, C07_pathonly_class_corrS, C07_authority_class_corrS, C07_seven_classes,
     C07_statement_seven_classes
                              parsing yields corrS on the three proved no-base classes of non-special schemes
                              of C01; with it the statement for these start URLs x seven setters x all histories
     C07_related_corrS, C07_spec_parse_invariants, C07_parse_model_extra, C07_parse_all_corrS
                              parsing yields corrS for every scalar-value input outside Known_C01 whose scheme is not
                              "file", special schemes included (the second clause of C07_statement with R := corrS): from
                              C01_statement_all (`related` pairs) through a bridge related => corrS whose side conditions
                              are parser invariants of the two sides; host functions: host_parse_ok.  (File inputs inside
                              the recogniser k_file_ok are outside Known_C01, class 1 of which is the rest of the file
                              scheme; the bridge does not cover them: input_is_file input = false is an explicit
                              hypothesis.)
     C07_seven_all, C07_statement_seven_all
                              C07_statement restricted to seven setters for every URL so parsed
     C07_href_equiv, C07_eight_setters_partial, C07_eight_histories, C07_statement_eight_all
                              href (= C01, outside classes 11-14) up to C01's Overflow arm (a new URL longer than
                              u32::MAX bytes: the code keeps the URL it had) and for values whose scheme is not "file";
                              eight setters, all histories
     C07_host_standard_portless, C07_host_portless_equiv
                              host on values without a port part (no ':' outside brackets): the Standard's host
                              setter is its hostname setter there, and so is url::quirks::set_host outside classes
                              2, 3, 4, 7 of Known_C07
     C07_host_standard_closed, C07_host_equiv
                              the Standard's host setter in closed form (host state continuing into the port state with
                              a state override: host changed, port unchanged on failure); host on EVERY value, with or
                              without a port part, outside classes 2, 3, 4, 7: the Standard's on every corrS pair
     C07_nine_setters_partial, C07_nine_histories, C07_nine_all, C07_statement_nine_all
                              nine setters (the eight and host): one step, all histories, from every parsed start URL,
                              and in the shape of C07_statement
     C07_host_fns_real, C07_host_fns_special_empty_string
                              the per-string host hypothesis for the REAL host functions under IdnaOK on (non-empty)
                              scalar-value strings; on the empty string it does not follow from IdnaOK (witness)
     C07_pathname_standard_closed, C07_pathname_known_classes, C07_pathname_equiv
                              the Standard's pathname setter in closed form (path start / path states with a state
                              override); pathname on EVERY corrS pair (authority, no host, opaque path) and every value
                              outside classes 1, 3, 4, 5, 9: the Standard's, no hypothesis on the host functions; the
                              exclusions of the path equivalence lie inside classes 1 and 3 as computed on the raw value
     C07_ten_setters_partial, C07_ten_histories, C07_ten_all, C07_statement_ten_all
                              ALL TEN setters: one step, all histories, from every parsed start URL, and in the shape
                              of C07_statement
     C07_hostname_host_equiv_on, C07_statement_on, C07_real_host_parse_ok_on, C07_statement_model, C07_model_histories
                              the same three clauses under the host hypothesis restricted to scalar-value strings,
                              non-empty for Host::parse (host_parse_ok_on), which the REAL host functions satisfy
                              relative to the first clause of the oracle hypothesis (IdnaOut): C07_statement's clauses
                              and all histories for the linked model against the Standard with its own host parser
     C07_parse_file_shaped, C07_corr_sane, C07_parse_all_corrS2, C07_href_equiv2, C07_statement_on2,
     C07_statement_ten_all2, C07_real_host_parse_ok_onF, C07_statement_model2, C07_model_histories2
                              inputs and href values whose scheme is "file": the parse clause for EVERY input outside
                              Known_C01 (as in C07_statement) and href on every value up to the Overflow arm, from
                              C01_statement_all3; the host hypothesis gains "the two host parsers agree on 'localhost'"
                              (host_parse_ok_onF), met by the real host functions under IdnaOut; the three clauses and
                              all histories without the premise input_is_file = false
   The gap: href values whose URL exceeds u32::MAX bytes, host_parse_ok_onF (or the concrete host functions under
   IdnaOut) in place of hosts_agree, strings that are not scalar-value strings.  (host / hostname / pathname on file
   URLs: class 4 of Known_C07 covers them all - an exclusion of the statement.)
   It is covered by the fixed-seed differential run implementation <-> specification model of the
   harness (a test). *)
From Coq Require Import String.
From RU Require Import Base.Prelude Base.Utf8 Model.AsciiSet Gen.Tables Model.PercentEncoding
  Model.HostT Model.UrlRecord Model.Parser Model.Setters Model.WF Model.KnownC01 Model.KnownC07 Spec.Whatwg
  Proofs.C06_FragQuery
  Proofs.C07_Defs Proofs.C07_Histories Proofs.C07_Setters Proofs.C07_Small
  Proofs.C07_Corr Proofs.C07_EqFive Proofs.C07_EqOpaqueClass
  Proofs.C01_EqRun Proofs.C07_SpecRun Proofs.C07_SpecProto Proofs.C07_EqProto Proofs.C07_EqSix
  Proofs.C02_Enc Proofs.C01_EqPath Proofs.C01_EqClasses Proofs.C01_EqAuth Proofs.C07_EqPathClass Proofs.C07_EqAuthClass
  Model.Host Spec.WhatwgHost Spec.WhatwgHostParse Proofs.C01_EqAuthSpec Proofs.C01_EqAuthModel Proofs.C01_EqClasses2 Proofs.C01_EqAuthHost
  Proofs.C07_EqAuthParse Proofs.C07_EqAuthHost
  Proofs.C07_SpecHost Proofs.C07_EqHostname Proofs.C07_EqSeven
  Proofs.C02_AuthParts Proofs.C03_ReachParts Proofs.C01_EqRef Proofs.C07_EqRel Proofs.C07_SpecInv Proofs.C07_ParseExtra Proofs.C07_EqParseAll
  Proofs.C07_EqHostNoPort Proofs.C07_SpecHostPort Proofs.C07_EqHostPort Proofs.C07_EqNine
  Proofs.C06_Host Proofs.C09_Host Proofs.C16_RT6Model Proofs.C07_HostReal
  Proofs.C07_SpecPath Proofs.C07_PathText Proofs.C07_PathKnown Proofs.C07_PathMarker Proofs.C07_EqPathname Proofs.C07_EqTen
  Proofs.C03_ReachParts Proofs.C09_Long Proofs.C09_RealC01 Proofs.C07_SpecInvU Proofs.C07_HostOn Proofs.C07_AllOn
  Proofs.C01_EqFile Proofs.C07_FileShape Proofs.C07_EqFileAll.

(* a host of rust-url and a host of the Standard are the same host *)
Definition host_corr (h : host) (sh : spec_host) : Prop :=
  match h, sh with
  | HDomain [], SEmpty => True
  | HDomain d, SDomain d' => d = d' /\ d <> []
  | HDomain d, SOpaque d' => d = d' /\ d <> []
  | HIpv4 a, SIpv4 a' => a = a'
  | HIpv6 p, SIpv6 p' => p = p'
  | _, _ => False
  end.

(* the host functions given to the two sides are the same functions: Host::parse / the host parser with
   isOpaque = false, Host::parse_opaque / isOpaque = true, Display / the host serializer *)
Definition hosts_agree (hp ho : list N -> result host) (hd : host -> list N)
           (shp : bool -> list N -> option spec_host) (shs : spec_host -> list N) : Prop :=
  (forall s, match hp s, shp false s with
             | Ok h, Some sh => host_corr h sh /\ hd h = shs sh
             | Err _, None => True
             | _, _ => False end)
  /\ (forall s, match ho s, shp true s with
                | Ok h, Some sh => host_corr h sh /\ hd h = shs sh
                | Err _, None => True
                | _, _ => False end).

(* There is an abstraction relation between records of rust-url and URL records of the Standard such
   that related records show the same ten API strings, parsing (outside Known_C01) yields related
   records, and every assignment outside Known_C07 - all ten setters, every value, including the
   assignments the Standard ignores - neither panics nor runs out of fuel and yields related records. *)
Definition C07_statement : Prop :=
  forall dbg hp ho hd shp shs, hosts_agree hp ho hd shp shs ->
  exists R : url -> spec_url -> Prop,
    (forall u su, R u su -> model_api dbg u = Some (spec_api_list shs su))
    /\ (forall input u, known_c01 None input = 0 ->
          parse_url dbg hp ho hd None None input = POk u ->
          exists su, spec_basic_url_parse shp input None = BDone su /\ R u su)
    /\ one_step dbg hp ho hd shp R.

(* the hypothesis on the host functions can be met: the small host functions of the computed theorems *)
Example C07_hosts_agree_inhabited : hosts_agree toy_hp toy_ho toy_hd toy_shp toy_shs.
Proof.
  split; intros [|c s]; cbn; auto.
  - split; [split; [reflexivity|discriminate]|reflexivity].
  - split; [split; [reflexivity|discriminate]|reflexivity].
Qed.

(* one assignment => any sequence of assignments, for any relation that one assignment preserves *)
Theorem C07_histories : forall dbg hp ho hd shp shs (R : url -> spec_url -> Prop),
  one_step dbg hp ho hd shp R ->
  (forall u su, R u su -> model_api dbg u = Some (spec_api_list shs su)) ->
  forall ops u su, R u su -> outside_known dbg hp ho hd u ops ->
    forall n, exists u' su',
      model_run dbg hp ho hd u (firstn n ops) = Some u'
      /\ spec_run shp su (firstn n ops) = Some su'
      /\ model_api dbg u' = Some (spec_api_list shs su').
Proof.
  intros dbg hp ho hd shp shs R H1 Hapi. exact (histories_api dbg hp ho hd shp shs R Hapi H1).
Qed.
Check C07_histories : forall dbg hp ho hd shp shs (R : url -> spec_url -> Prop),
  one_step dbg hp ho hd shp R ->
  (forall u su, R u su -> model_api dbg u = Some (spec_api_list shs su)) ->
  forall ops u su, R u su -> outside_known dbg hp ho hd u ops ->
    forall n, exists u' su',
      model_run dbg hp ho hd u (firstn n ops) = Some u'
      /\ spec_run shp su (firstn n ops) = Some su'
      /\ model_api dbg u' = Some (spec_api_list shs su').
Print Assumptions C07_histories.

(* the property's "continues to hold along any sequence of such assignments", from the statement *)
Theorem C07_statement_histories : C07_statement ->
  forall dbg hp ho hd shp shs, hosts_agree hp ho hd shp shs ->
  forall input u ops, known_c01 None input = 0 ->
    parse_url dbg hp ho hd None None input = POk u ->
    outside_known dbg hp ho hd u ops ->
    exists su, spec_basic_url_parse shp input None = BDone su
      /\ forall n, exists u' su',
           model_run dbg hp ho hd u (firstn n ops) = Some u'
           /\ spec_run shp su (firstn n ops) = Some su'
           /\ model_api dbg u' = Some (spec_api_list shs su').
Proof.
  intros HS dbg hp ho hd shp shs HA input u ops Hk Hp Hout.
  destruct (HS dbg hp ho hd shp shs HA) as (R & Hapi & Hparse & Hstep).
  destruct (Hparse input u Hk Hp) as (su & Hsp & HR).
  exists su. split; [exact Hsp|].
  exact (histories_api dbg hp ho hd shp shs R Hapi Hstep ops u su HR Hout).
Qed.
Print Assumptions C07_statement_histories.

(* the statement on a small scope *)
Theorem C07_small_scope : forall st s v, In st small_starts -> In v small_values ->
  forall u, toy_parse st = Some u -> known_c07 u s v = 0 ->
  exists su u' su',
    toy_sparse st = Some su
    /\ model_api true u = Some (spec_api_list toy_shs su)
    /\ model_set true toy_hp toy_ho toy_hd s u v = Some u'
    /\ spec_step toy_shp s su v = Some su'
    /\ model_api true u' = Some (spec_api_list toy_shs su').
Proof.
  intros st s v Hst Hv u Hu Hk.
  assert (In s [QHref; QHost; QHostname] \/ six s = true \/ s = QPathname) as [Hs|Hs] by (destruct s; cbn; auto 6).
  - (* the small host functions do not meet the host hypotheses of the one-step theorems: by computation *)
    exact (starts_ok_one _ _ small_scope_computed st s v u Hst (in_prod _ _ s v Hs Hv) Hu Hk).
  - (* no host function is asked: instances of six_step / pathname_step *)
    destruct (starts_corrS _ small_starts_corrS_computed st Hst) as (u0 & su & Ep & Es & C).
    rewrite Hu in Ep. injection Ep as <-. pose proof (small_values_usv v Hv) as Huv.
    assert (exists u' su', model_set true toy_hp toy_ho toy_hd s u v = Some u' /\ spec_step toy_shp s su v = Some su'
              /\ corrS true toy_shs u' su') as (u' & su' & A & B & C').
    { destruct Hs as [Hs| ->]; [exact (six_step true toy_hp toy_ho toy_hd toy_shp toy_shs u su s v C Hs Huv Hk) | exact (pathname_step true toy_hp toy_ho toy_hd toy_shp toy_shs u su v C Huv Hk)]. }
    exists su, u', su'. repeat split; try assumption; [exact (corrS_api _ _ _ _ C) | exact (corrS_api _ _ _ _ C')].
Qed.
Print Assumptions C07_small_scope.

Theorem C07_small_histories : forall st o1 o2, In st hist_starts -> In o1 hist_ops -> In o2 hist_ops ->
  forall u, toy_parse st = Some u -> outside_known true toy_hp toy_ho toy_hd u [o1; o2] ->
  exists su u' su',
    toy_sparse st = Some su
    /\ model_run true toy_hp toy_ho toy_hd u [o1; o2] = Some u'
    /\ spec_run toy_shp su [o1; o2] = Some su'
    /\ model_api true u' = Some (spec_api_list toy_shs su').
Proof.
  intros st o1 o2 Hst H1 H2 u Hu Hout.
  assert (incl [o1; o2] hist_ops) as Hi by (intros o [<-|[<-|[]]]; assumption).
  destruct (starts_ok_sound 2 _ _ small_histories_computed st [o1; o2] u Hst (le_n 2) Hi Hu Hout)
    as (su & u' & su' & A & _ & C & D & E).
  exists su, u', su'. auto.
Qed.
Print Assumptions C07_small_histories.

(* scheme changes among http, https, ws, wss, ftp, file and a non-special scheme, on URLs with and
   without credentials, port, empty host, opaque path: outside class 6 (F-C07-7) the model carries out
   exactly the changes the Standard carries out *)
Theorem C07_protocol_table : forall st v, In st proto_starts -> In v proto_values ->
  forall u, toy_parse st = Some u -> known_c07 u QProtocol v = 0 ->
  exists su u' su',
    toy_sparse st = Some su
    /\ model_set true toy_hp toy_ho toy_hd QProtocol u v = Some u'
    /\ spec_step toy_shp QProtocol su v = Some su'
    /\ model_api true u' = Some (spec_api_list toy_shs su').
Proof.
  intros st v Hst Hv u Hu Hk.
  destruct (starts_corrS _ proto_starts_corrS_computed st Hst) as (u0 & su & Ep & Es & C).
  rewrite Hu in Ep. injection Ep as <-.
  apply in_map_iff in Hv. destruct Hv as (s0 & <- & _).
  destruct (six_step true toy_hp toy_ho toy_hd toy_shp toy_shs u su QProtocol (str s0) C eq_refl (usv_str s0) Hk) as (u' & su' & A & B & C').
  exists su, u', su'. split; [exact Es|]. split; [exact A|]. split; [exact B | exact (corrS_api _ _ _ _ C')].
Qed.
Print Assumptions C07_protocol_table.

(* hash, search, username, password, port: all related records, all values *)

(* records related by corr show the same ten API strings *)
Theorem C07_corr_api : forall dbg shs u su, corr dbg shs u su ->
  model_api dbg u = Some (spec_api_list shs su).
Proof. exact corr_api. Qed.
Check C07_corr_api : forall dbg shs u su, corr dbg shs u su ->
  model_api dbg u = Some (spec_api_list shs su).
Print Assumptions C07_corr_api.

(* hash: fragment state with a state override; the empty value removes the fragment and, on an opaque
   path without query, strips the trailing spaces of the path *)
Theorem C07_hash_equiv : forall dbg hp ho hd shp shs u su v, corr dbg shs u su -> usv_list v ->
  exists u' su', model_set dbg hp ho hd QHash u v = Some u' /\ spec_step shp QHash su v = Some su'
    /\ corr dbg shs u' su' /\ model_api dbg u' = Some (spec_api_list shs su').
Proof.
  intros dbg hp ho hd shp shs u su v C Hv.
  exact (step_api dbg hp ho hd shp shs _ (corr_api dbg shs) QHash u su v (five_step dbg hp ho hd shp shs u su QHash v C eq_refl Hv eq_refl)).
Qed.
Check C07_hash_equiv : forall dbg hp ho hd shp shs u su v, corr dbg shs u su -> usv_list v ->
  exists u' su', model_set dbg hp ho hd QHash u v = Some u' /\ spec_step shp QHash su v = Some su'
    /\ corr dbg shs u' su' /\ model_api dbg u' = Some (spec_api_list shs su').
Print Assumptions C07_hash_equiv.

(* search: query state with a state override ('#' is an ordinary code point there), the special-query
   set for special schemes; the empty value removes the query and strips as above *)
Theorem C07_search_equiv : forall dbg hp ho hd shp shs u su v, corr dbg shs u su -> usv_list v ->
  exists u' su', model_set dbg hp ho hd QSearch u v = Some u' /\ spec_step shp QSearch su v = Some su'
    /\ corr dbg shs u' su' /\ model_api dbg u' = Some (spec_api_list shs su').
Proof.
  intros dbg hp ho hd shp shs u su v C Hv.
  exact (step_api dbg hp ho hd shp shs _ (corr_api dbg shs) QSearch u su v (five_step dbg hp ho hd shp shs u su QSearch v C eq_refl Hv eq_refl)).
Qed.
Check C07_search_equiv : forall dbg hp ho hd shp shs u su v, corr dbg shs u su -> usv_list v ->
  exists u' su', model_set dbg hp ho hd QSearch u v = Some u' /\ spec_step shp QSearch su v = Some su'
    /\ corr dbg shs u' su' /\ model_api dbg u' = Some (spec_api_list shs su').
Print Assumptions C07_search_equiv.

(* username / password: ignored when the URL cannot have a username/password/port, otherwise the
   userinfo-percent-encoded value *)
Theorem C07_username_equiv : forall dbg hp ho hd shp shs u su v, corr dbg shs u su -> usv_list v ->
  exists u' su', model_set dbg hp ho hd QUsername u v = Some u' /\ spec_step shp QUsername su v = Some su'
    /\ corr dbg shs u' su' /\ model_api dbg u' = Some (spec_api_list shs su').
Proof.
  intros dbg hp ho hd shp shs u su v C Hv.
  exact (step_api dbg hp ho hd shp shs _ (corr_api dbg shs) QUsername u su v (five_step dbg hp ho hd shp shs u su QUsername v C eq_refl Hv eq_refl)).
Qed.
Check C07_username_equiv : forall dbg hp ho hd shp shs u su v, corr dbg shs u su -> usv_list v ->
  exists u' su', model_set dbg hp ho hd QUsername u v = Some u' /\ spec_step shp QUsername su v = Some su'
    /\ corr dbg shs u' su' /\ model_api dbg u' = Some (spec_api_list shs su').
Print Assumptions C07_username_equiv.

Theorem C07_password_equiv : forall dbg hp ho hd shp shs u su v, corr dbg shs u su -> usv_list v ->
  exists u' su', model_set dbg hp ho hd QPassword u v = Some u' /\ spec_step shp QPassword su v = Some su'
    /\ corr dbg shs u' su' /\ model_api dbg u' = Some (spec_api_list shs su').
Proof.
  intros dbg hp ho hd shp shs u su v C Hv.
  exact (step_api dbg hp ho hd shp shs _ (corr_api dbg shs) QPassword u su v (five_step dbg hp ho hd shp shs u su QPassword v C eq_refl Hv eq_refl)).
Qed.
Check C07_password_equiv : forall dbg hp ho hd shp shs u su v, corr dbg shs u su -> usv_list v ->
  exists u' su', model_set dbg hp ho hd QPassword u v = Some u' /\ spec_step shp QPassword su v = Some su'
    /\ corr dbg shs u' su' /\ model_api dbg u' = Some (spec_api_list shs su').
Print Assumptions C07_password_equiv.

(* port: ignored when the URL cannot have a port; the empty value removes the port; otherwise the leading
   digits (tab / newline removed), default port stored as null, no digit or above 65535 => ignored.
   Outside class 8 of Known_C07 (non-empty value of tab / newline only on a URL with a port, F-C07-9). *)
Theorem C07_port_equiv : forall dbg hp ho hd shp shs u su v, corr dbg shs u su -> usv_list v ->
  known_c07 u QPort v = 0 ->
  exists u' su', model_set dbg hp ho hd QPort u v = Some u' /\ spec_step shp QPort su v = Some su'
    /\ corr dbg shs u' su' /\ model_api dbg u' = Some (spec_api_list shs su').
Proof.
  intros dbg hp ho hd shp shs u su v C Hv Hk.
  exact (step_api dbg hp ho hd shp shs _ (corr_api dbg shs) QPort u su v (five_step dbg hp ho hd shp shs u su QPort v C eq_refl Hv Hk)).
Qed.
Check C07_port_equiv : forall dbg hp ho hd shp shs u su v, corr dbg shs u su -> usv_list v ->
  known_c07 u QPort v = 0 ->
  exists u' su', model_set dbg hp ho hd QPort u v = Some u' /\ spec_step shp QPort su v = Some su'
    /\ corr dbg shs u' su' /\ model_api dbg u' = Some (spec_api_list shs su').
Print Assumptions C07_port_equiv.

(* PARTIAL C07_statement: its one-step clause (`one_step`) with R := corr, restricted to the five
   setters and to values that are strings of scalar values (every Rust &str is).  Not in this theorem: protocol,
   host, hostname, pathname, href (all ten, with corrS: C07_ten_setters_partial); that parsing yields related records
   (C07_parse_all_corrS2). *)
Theorem C07_five_setters_partial : forall dbg hp ho hd shp shs u su s v,
  corr dbg shs u su -> five s = true -> usv_list v -> known_c07 u s v = 0 ->
  exists u' su', model_set dbg hp ho hd s u v = Some u' /\ spec_step shp s su v = Some su'
    /\ corr dbg shs u' su' /\ model_api dbg u' = Some (spec_api_list shs su').
Proof.
  intros dbg hp ho hd shp shs u su s v C Hs Hv Hk.
  exact (step_api dbg hp ho hd shp shs _ (corr_api dbg shs) s u su v (five_step dbg hp ho hd shp shs u su s v C Hs Hv Hk)).
Qed.
Check C07_five_setters_partial : forall dbg hp ho hd shp shs u su s v,
  corr dbg shs u su -> five s = true -> usv_list v -> known_c07 u s v = 0 ->
  exists u' su', model_set dbg hp ho hd s u v = Some u' /\ spec_step shp s su v = Some su'
    /\ corr dbg shs u' su' /\ model_api dbg u' = Some (spec_api_list shs su').
Print Assumptions C07_five_setters_partial.

(* ... along every history of assignments through the five setters *)
Theorem C07_five_histories : forall dbg hp ho hd shp shs ops u su,
  corr dbg shs u su -> five_ops ops -> outside_known dbg hp ho hd u ops ->
  forall n, exists u' su',
    model_run dbg hp ho hd u (firstn n ops) = Some u'
    /\ spec_run shp su (firstn n ops) = Some su'
    /\ corr dbg shs u' su'
    /\ model_api dbg u' = Some (spec_api_list shs su').
Proof.
  intros dbg hp ho hd shp shs.
  exact (usv_histories dbg hp ho hd shp shs (corr dbg shs) (corr_api dbg shs) (fun s _ => five s = true) five_ops (fun _ _ _ H => H) (five_step dbg hp ho hd shp shs)).
Qed.
Check C07_five_histories : forall dbg hp ho hd shp shs ops u su,
  corr dbg shs u su -> five_ops ops -> outside_known dbg hp ho hd u ops ->
  forall n, exists u' su',
    model_run dbg hp ho hd u (firstn n ops) = Some u'
    /\ spec_run shp su (firstn n ops) = Some su'
    /\ corr dbg shs u' su'
    /\ model_api dbg u' = Some (spec_api_list shs su').
Print Assumptions C07_five_histories.

(* the hypothesis corr can be met: the 20 start URLs of the small scope (special, file, non-special,
   opaque path, empty host, credentials, port, "/." marker) are related to their Standard's parse ... *)
Theorem C07_small_starts_corr : forall st, In st small_starts ->
  exists u su, toy_parse st = Some u /\ toy_sparse st = Some su /\ corr true toy_shs u su.
Proof. exact small_starts_corr. Qed.
Print Assumptions C07_small_starts_corr.

(* ... so for them the ten API strings agree after every prefix of every history of the five setters,
   whatever the values *)
Theorem C07_five_small_starts : forall st ops, In st small_starts -> five_ops ops ->
  forall u, toy_parse st = Some u -> outside_known true toy_hp toy_ho toy_hd u ops ->
  exists su, toy_sparse st = Some su
    /\ forall n, exists u' su',
         model_run true toy_hp toy_ho toy_hd u (firstn n ops) = Some u'
         /\ spec_run toy_shp su (firstn n ops) = Some su'
         /\ model_api true u' = Some (spec_api_list toy_shs su').
Proof.
  intros st ops Hin Hf u Hp Ho.
  destruct (usv_api true toy_hp toy_ho toy_hd toy_shp toy_shs (corr true toy_shs) (corr_api true toy_shs) (fun s _ => five s = true) five_ops (fun _ _ _ H => H) (five_step true toy_hp toy_ho toy_hd toy_shp toy_shs)
              (fun su => toy_sparse st = Some su) ops u) as (su & A & _ & B); [|exact Hf|exact Ho|exists su; auto].
  destruct (small_starts_corr st Hin) as (u0 & su & Ep & Es & C). rewrite Hp in Ep. injection Ep as <-. exists su. auto.
Qed.
Print Assumptions C07_five_small_starts.

(* the second clause of C07_statement for a whole class of inputs: a non-special scheme followed by
   something that does not start with '/' (the opaque-path class of the C01 equivalence).  Both parsers
   yield related records - or the model reports Overflow (serialization longer than u32::MAX) *)
Theorem C07_opaque_class_corr : forall dbg hp ho hd shp shs input sch rem, usv_list input ->
  parse_scheme CUrlParser (input_new_trim_c0 input) = Some (sch, rem) ->
  scheme_type_of sch = STNotSpecial -> inp_split_prefix_char 47 rem = None ->
  exists su, spec_basic_url_parse shp input None = BDone su
    /\ (parse_url dbg hp ho hd None None input = PErr Overflow
        \/ exists u, parse_url dbg hp ho hd None None input = POk u /\ corr dbg shs u su).
Proof. exact opaque_class_corr. Qed.
Print Assumptions C07_opaque_class_corr.

(* C07_statement restricted to start URLs of that class and to the five setters, histories included:
   parse, then any sequence of hash / search / username / password / port assignments with any values *)
Theorem C07_five_opaque_class : forall dbg hp ho hd shp shs input sch rem u ops, usv_list input ->
  parse_scheme CUrlParser (input_new_trim_c0 input) = Some (sch, rem) ->
  scheme_type_of sch = STNotSpecial -> inp_split_prefix_char 47 rem = None ->
  parse_url dbg hp ho hd None None input = POk u ->
  five_ops ops -> outside_known dbg hp ho hd u ops ->
  exists su, spec_basic_url_parse shp input None = BDone su
    /\ model_api dbg u = Some (spec_api_list shs su)
    /\ forall n, exists u' su',
         model_run dbg hp ho hd u (firstn n ops) = Some u'
         /\ spec_run shp su (firstn n ops) = Some su'
         /\ model_api dbg u' = Some (spec_api_list shs su').
Proof.
  intros dbg hp ho hd shp shs input sch rem u ops Hu Hs Hns H47 Ep.
  apply (usv_api dbg hp ho hd shp shs (corr dbg shs) (corr_api dbg shs) (fun s _ => five s = true) five_ops (fun _ _ _ H => H) (five_step dbg hp ho hd shp shs)).
  destruct (opaque_class_corr dbg hp ho hd shp shs input sch rem Hu Hs Hns H47) as (su & Esp & K).
  exists su. split; [exact Esp | exact (parsed_related _ _ u su K Ep)].
Qed.
Check C07_five_opaque_class : forall dbg hp ho hd shp shs input sch rem u ops, usv_list input ->
  parse_scheme CUrlParser (input_new_trim_c0 input) = Some (sch, rem) ->
  scheme_type_of sch = STNotSpecial -> inp_split_prefix_char 47 rem = None ->
  parse_url dbg hp ho hd None None input = POk u ->
  five_ops ops -> outside_known dbg hp ho hd u ops ->
  exists su, spec_basic_url_parse shp input None = BDone su
    /\ model_api dbg u = Some (spec_api_list shs su)
    /\ forall n, exists u' su',
         model_run dbg hp ho hd u (firstn n ops) = Some u'
         /\ spec_run shp su (firstn n ops) = Some su'
         /\ model_api dbg u' = Some (spec_api_list shs su').
Print Assumptions C07_five_opaque_class.

(* the class is inhabited: "  mailto:a b  ?q#f " *)
Example C07_opaque_class_inhabited :
  exists sch rem,
    parse_scheme CUrlParser (input_new_trim_c0 (str "  mailto:a b  ?q#f ")) = Some (sch, rem)
    /\ scheme_type_of sch = STNotSpecial /\ inp_split_prefix_char 47 rem = None.
Proof. eexists. eexists. vm_compute. repeat split. Qed.

Example C07_five_ops_inhabited :
  five_ops [(QHash, str "#a b"); (QSearch, str "?x=1#y"); (QUsername, str "me@"); (QPassword, []); (QPort, str "8080x")].
Proof. cbn [five_ops five]. repeat split; repeat constructor; vm_compute; auto. Qed.

(* protocol; six setters: all related records, all values, all histories *)

(* the Standard's protocol setter in closed form: the basic URL parser run from the scheme start state
   with a state override on "value:" either leaves the record (no scheme before the first ':', or one
   of steps 2.1.1 - 2.1.4 of the scheme state refuses) or replaces the scheme and drops a port that is
   the new default port *)
Theorem C07_protocol_standard_closed : forall shp su v,
  spec_set shp SetProtocol su v
  = SetTo (match spec_scheme (notnl v ++ [58]) with
           | Some (sch, _) => if proto_refuses su sch then su else renorm (Whatwg.set_scheme su sch)
           | None => su end).
Proof. exact spec_protocol_closed. Qed.
Check C07_protocol_standard_closed : forall shp su v,
  spec_set shp SetProtocol su v
  = SetTo (match spec_scheme (notnl v ++ [58]) with
           | Some (sch, _) => if proto_refuses su sch then su else renorm (Whatwg.set_scheme su sch)
           | None => su end).
Print Assumptions C07_protocol_standard_closed.

(* protocol: scheme start state / scheme state with a state override.  The relation is corrS = corr
   together with the invariants `sane` of the Standard's record (a URL that cannot have a
   username/password/port has none; a special URL has a host, non-empty unless the scheme is "file"; an
   opaque path comes without host) - without them the decision of Url::set_scheme, which looks at
   has_authority() and has_host(), is not the Standard's.  Outside class 6 of Known_C07 (protocol := file
   on a special URL that is not a file URL, F-C07-7).  file -> file: refused by the code, a no-op in the
   Standard. *)
Theorem C07_protocol_equiv : forall dbg hp ho hd shp shs u su v, corrS dbg shs u su -> usv_list v ->
  known_c07 u QProtocol v = 0 ->
  exists u' su', model_set dbg hp ho hd QProtocol u v = Some u' /\ spec_step shp QProtocol su v = Some su'
    /\ corrS dbg shs u' su' /\ model_api dbg u' = Some (spec_api_list shs su').
Proof.
  intros dbg hp ho hd shp shs u su v C Hv Hk.
  exact (step_api dbg hp ho hd shp shs _ (corrS_api dbg shs) QProtocol u su v (six_step dbg hp ho hd shp shs u su QProtocol v C eq_refl Hv Hk)).
Qed.
Check C07_protocol_equiv : forall dbg hp ho hd shp shs u su v, corrS dbg shs u su -> usv_list v ->
  known_c07 u QProtocol v = 0 ->
  exists u' su', model_set dbg hp ho hd QProtocol u v = Some u' /\ spec_step shp QProtocol su v = Some su'
    /\ corrS dbg shs u' su' /\ model_api dbg u' = Some (spec_api_list shs su').
Print Assumptions C07_protocol_equiv.

(* the invariants are kept by the Standard's protocol setter and by the five setters above *)
Theorem C07_sane_kept : forall shp s su v su', six s = true -> sane su ->
  spec_step shp s su v = Some su' -> sane su'.
Proof.
  intros shp s su v su'.
  intros Hs S H. destruct (five s) eqn:H5; [exact (spec_five_sane shp s su v su' H5 S H)|].
  destruct s; try discriminate Hs; try discriminate H5.
  unfold spec_step in H. cbn [setter_of_q] in H.
  destruct (spec_set shp SetProtocol su v) as [x|] eqn:E; [|discriminate H]. injection H as <-.
  exact (spec_protocol_sane shp su v x S E).
Qed.
Print Assumptions C07_sane_kept.

(* ... and they are needed: a pair related by corr whose Standard's record is "http:/p" without a host
   (no parser or setter of the Standard produces it): the code refuses http -> https because has_host()
   is false, the Standard carries it out; the assignment is outside Known_C07 *)
Theorem C07_protocol_needs_sane :
  corr true toy_shs nosane_u nosane_su
  /\ known_c07 nosane_u QProtocol (str "https") = 0
  /\ exists u' su',
       model_set true toy_hp toy_ho toy_hd QProtocol nosane_u (str "https") = Some u'
       /\ spec_step toy_shp QProtocol nosane_su (str "https") = Some su'
       /\ toy_api_agree u' su' = false.
Proof.
  split; [apply corr_b_sound; vm_compute; reflexivity|].
  split; [vm_compute; reflexivity|].
  eexists. eexists. split; [vm_compute; reflexivity|]. split; [vm_compute; reflexivity|]. vm_compute. reflexivity.
Qed.
Print Assumptions C07_protocol_needs_sane.

(* PARTIAL C07_statement: its one-step clause (`one_step`) with R := corrS, restricted to six of the ten
   setters and to values that are strings of scalar values (every Rust &str is).  Not in this theorem: host,
   hostname, pathname, href (C07_ten_setters_partial); that parsing yields records related by corrS beyond the classes
   below (C07_parse_all_corrS2). *)
Theorem C07_six_setters_partial : forall dbg hp ho hd shp shs u su s v,
  corrS dbg shs u su -> six s = true -> usv_list v -> known_c07 u s v = 0 ->
  exists u' su', model_set dbg hp ho hd s u v = Some u' /\ spec_step shp s su v = Some su'
    /\ corrS dbg shs u' su' /\ model_api dbg u' = Some (spec_api_list shs su').
Proof.
  intros dbg hp ho hd shp shs u su s v C Hs Hv Hk.
  exact (step_api dbg hp ho hd shp shs _ (corrS_api dbg shs) s u su v (six_step dbg hp ho hd shp shs u su s v C Hs Hv Hk)).
Qed.
Check C07_six_setters_partial : forall dbg hp ho hd shp shs u su s v,
  corrS dbg shs u su -> six s = true -> usv_list v -> known_c07 u s v = 0 ->
  exists u' su', model_set dbg hp ho hd s u v = Some u' /\ spec_step shp s su v = Some su'
    /\ corrS dbg shs u' su' /\ model_api dbg u' = Some (spec_api_list shs su').
Print Assumptions C07_six_setters_partial.

(* ... along every history of assignments through the six setters *)
Theorem C07_six_histories : forall dbg hp ho hd shp shs ops u su,
  corrS dbg shs u su -> six_ops ops -> outside_known dbg hp ho hd u ops ->
  forall n, exists u' su',
    model_run dbg hp ho hd u (firstn n ops) = Some u'
    /\ spec_run shp su (firstn n ops) = Some su'
    /\ corrS dbg shs u' su'
    /\ model_api dbg u' = Some (spec_api_list shs su').
Proof.
  intros dbg hp ho hd shp shs.
  exact (usv_histories dbg hp ho hd shp shs (corrS dbg shs) (corrS_api dbg shs) (fun s _ => six s = true) six_ops (fun _ _ _ H => H) (six_step dbg hp ho hd shp shs)).
Qed.
Check C07_six_histories : forall dbg hp ho hd shp shs ops u su,
  corrS dbg shs u su -> six_ops ops -> outside_known dbg hp ho hd u ops ->
  forall n, exists u' su',
    model_run dbg hp ho hd u (firstn n ops) = Some u'
    /\ spec_run shp su (firstn n ops) = Some su'
    /\ corrS dbg shs u' su'
    /\ model_api dbg u' = Some (spec_api_list shs su').
Print Assumptions C07_six_histories.

(* parsing yields records related by corrS on the opaque-path class of inputs ... *)
Theorem C07_opaque_class_corrS : forall dbg hp ho hd shp shs input sch rem, usv_list input ->
  parse_scheme CUrlParser (input_new_trim_c0 input) = Some (sch, rem) ->
  scheme_type_of sch = STNotSpecial -> inp_split_prefix_char 47 rem = None ->
  exists su, spec_basic_url_parse shp input None = BDone su
    /\ (parse_url dbg hp ho hd None None input = PErr Overflow
        \/ exists u, parse_url dbg hp ho hd None None input = POk u /\ corrS dbg shs u su).
Proof. exact opaque_class_corrS. Qed.
Print Assumptions C07_opaque_class_corrS.

(* ... so C07_statement holds restricted to start URLs of that class and to the six setters, histories
   included: parse, then any sequence of protocol / hash / search / username / password / port
   assignments with any values *)
Theorem C07_six_opaque_class : forall dbg hp ho hd shp shs input sch rem u ops, usv_list input ->
  parse_scheme CUrlParser (input_new_trim_c0 input) = Some (sch, rem) ->
  scheme_type_of sch = STNotSpecial -> inp_split_prefix_char 47 rem = None ->
  parse_url dbg hp ho hd None None input = POk u ->
  six_ops ops -> outside_known dbg hp ho hd u ops ->
  exists su, spec_basic_url_parse shp input None = BDone su
    /\ model_api dbg u = Some (spec_api_list shs su)
    /\ forall n, exists u' su',
         model_run dbg hp ho hd u (firstn n ops) = Some u'
         /\ spec_run shp su (firstn n ops) = Some su'
         /\ model_api dbg u' = Some (spec_api_list shs su').
Proof.
  intros dbg hp ho hd shp shs input sch rem u ops Hu Hs Hns H47 Ep.
  apply (usv_api dbg hp ho hd shp shs (corrS dbg shs) (corrS_api dbg shs) (fun s _ => six s = true) six_ops (fun _ _ _ H => H) (six_step dbg hp ho hd shp shs)).
  destruct (opaque_class_corrS dbg hp ho hd shp shs input sch rem Hu Hs Hns H47) as (su & Esp & K).
  exists su. split; [exact Esp | exact (parsed_related _ _ u su K Ep)].
Qed.
Check C07_six_opaque_class : forall dbg hp ho hd shp shs input sch rem u ops, usv_list input ->
  parse_scheme CUrlParser (input_new_trim_c0 input) = Some (sch, rem) ->
  scheme_type_of sch = STNotSpecial -> inp_split_prefix_char 47 rem = None ->
  parse_url dbg hp ho hd None None input = POk u ->
  six_ops ops -> outside_known dbg hp ho hd u ops ->
  exists su, spec_basic_url_parse shp input None = BDone su
    /\ model_api dbg u = Some (spec_api_list shs su)
    /\ forall n, exists u' su',
         model_run dbg hp ho hd u (firstn n ops) = Some u'
         /\ spec_run shp su (firstn n ops) = Some su'
         /\ model_api dbg u' = Some (spec_api_list shs su').
Print Assumptions C07_six_opaque_class.

(* parsing yields records related by corrS on the authority-less class of the C01 equivalence: no base,
   non-special scheme, "scheme:/" not followed by a second '/', no ".." that meets a drive-letter-shaped
   segment (F-C01-9) - dot segments, "/." marker, query, fragment, tab / LF / CR anywhere ... *)
Theorem C07_pathonly_class_corrS : forall dbg hp ho hd shp shs input, usv_list input ->
  in_class_pathonly input = true ->
  exists su, spec_basic_url_parse shp input None = BDone su
    /\ (parse_url dbg hp ho hd None None input = PErr Overflow
        \/ exists u, parse_url dbg hp ho hd None None input = POk u /\ corrS dbg shs u su).
Proof. exact pathonly_class_corrS. Qed.
Check C07_pathonly_class_corrS : forall dbg hp ho hd shp shs input, usv_list input ->
  in_class_pathonly input = true ->
  exists su, spec_basic_url_parse shp input None = BDone su
    /\ (parse_url dbg hp ho hd None None input = PErr Overflow
        \/ exists u, parse_url dbg hp ho hd None None input = POk u /\ corrS dbg shs u su).
Print Assumptions C07_pathonly_class_corrS.

(* ... so C07_statement holds restricted to start URLs of that class and to the six setters, histories
   included *)
Theorem C07_six_pathonly_class : forall dbg hp ho hd shp shs input u ops, usv_list input ->
  in_class_pathonly input = true ->
  parse_url dbg hp ho hd None None input = POk u ->
  six_ops ops -> outside_known dbg hp ho hd u ops ->
  exists su, spec_basic_url_parse shp input None = BDone su
    /\ model_api dbg u = Some (spec_api_list shs su)
    /\ forall n, exists u' su',
         model_run dbg hp ho hd u (firstn n ops) = Some u'
         /\ spec_run shp su (firstn n ops) = Some su'
         /\ model_api dbg u' = Some (spec_api_list shs su').
Proof.
  intros dbg hp ho hd shp shs input u ops Hu Hc Ep.
  apply (usv_api dbg hp ho hd shp shs (corrS dbg shs) (corrS_api dbg shs) (fun s _ => six s = true) six_ops (fun _ _ _ H => H) (six_step dbg hp ho hd shp shs)).
  exact (parse_classes_corrS dbg hp ho hd shp shs input u Hu (or_intror (or_introl Hc)) Ep).
Qed.
Check C07_six_pathonly_class : forall dbg hp ho hd shp shs input u ops, usv_list input ->
  in_class_pathonly input = true ->
  parse_url dbg hp ho hd None None input = POk u ->
  six_ops ops -> outside_known dbg hp ho hd u ops ->
  exists su, spec_basic_url_parse shp input None = BDone su
    /\ model_api dbg u = Some (spec_api_list shs su)
    /\ forall n, exists u' su',
         model_run dbg hp ho hd u (firstn n ops) = Some u'
         /\ spec_run shp su (firstn n ops) = Some su'
         /\ model_api dbg u' = Some (spec_api_list shs su').
Print Assumptions C07_six_pathonly_class.

(* the class is inhabited: " A:/x/../y/./%2E%2e/z w/..//?q#f " *)
Example C07_pathonly_class_inhabited :
  in_class_pathonly (str " A:/x/../y/./%2E%2e/z w/..//?q#f ") = true.
Proof. vm_compute. reflexivity. Qed.

(* the canonical records of the authority class of the C01 equivalence ("scheme://[userinfo@]host[:port]
   [/path][?q][#f]", non-special scheme; Proofs/C01_EqAuth.v auth_url / spec_auth_url) are related by
   corr and the Standard's one is `sane`, given the four facts about host and username that the two
   parsers establish.  (C07_authority_class_corrS below is the same for what parse_url returns on the class.) *)
Theorem C07_auth_canonical_corrS : forall dbg shs sch un pw ht hi sh po segs q f,
  auth_ok shs sch un pw ht hi sh po segs q f ->
  (hi = HI_None <-> sh = SEmpty) -> (ht = [] -> hi = HI_None) -> starts_with_cp 64 ht = false ->
  clean T_USERINFO un = true -> (hi = HI_None -> un = [] /\ pw = []) ->
  corrS dbg shs (auth_url sch un pw ht hi po (flat_map (fun s => 47 :: s) segs) q f)
                (spec_auth_url sch un pw sh po segs q f).
Proof. exact corrS_auth. Qed.
Print Assumptions C07_auth_canonical_corrS.

(* parsing yields records related by corrS on the authority class of the C01 equivalence: no base,
   non-special scheme, "scheme://[userinfo@]host[:port][/path][?q][#f]" (in_class_authority: every such
   scalar-value input except authority ":@", a port directly followed by '\' - F-C01-8 - and ".." meeting a
   drive-letter-shaped segment - F-C01-9).  The host functions of the two sides are arbitrary functions
   that agree on the ONE string they are applied to: host_agree of C01 (same text, not led by ':', empty
   exactly for the empty string) and host_extra (the model's host is the empty domain exactly when the
   Standard's is the empty host; the text is not led by '@').  Both parsers fail, or the model reports
   Overflow, or the two records are related. *)
Theorem C07_authority_class_corrS : forall dbg hp hpo hd ovr shp shs input, usv_list input ->
  in_class_authority input = true ->
  host_agree hpo hd shp shs (class_host_text input) -> host_extra hpo hd shp (class_host_text input) ->
  match spec_basic_url_parse shp input None with
  | BDone su => parse_url dbg hp hpo hd ovr None input = PErr Overflow
                \/ exists u, parse_url dbg hp hpo hd ovr None input = POk u /\ corrS dbg shs u su
  | BFailure _ => exists e, parse_url dbg hp hpo hd ovr None input = PErr e
  | BOutOfFuel => False
  end.
Proof. exact authority_class_corrS. Qed.
Check C07_authority_class_corrS : forall dbg hp hpo hd ovr shp shs input, usv_list input ->
  in_class_authority input = true ->
  host_agree hpo hd shp shs (class_host_text input) -> host_extra hpo hd shp (class_host_text input) ->
  match spec_basic_url_parse shp input None with
  | BDone su => parse_url dbg hp hpo hd ovr None input = PErr Overflow
                \/ exists u, parse_url dbg hp hpo hd ovr None input = POk u /\ corrS dbg shs u su
  | BFailure _ => exists e, parse_url dbg hp hpo hd ovr None input = PErr e
  | BOutOfFuel => False
  end.
Print Assumptions C07_authority_class_corrS.

(* ... so C07_statement holds restricted to start URLs of that class and to the six setters, histories
   included *)
Theorem C07_six_authority_class : forall dbg hp hpo hd shp shs input u ops, usv_list input ->
  in_class_authority input = true ->
  host_agree hpo hd shp shs (class_host_text input) -> host_extra hpo hd shp (class_host_text input) ->
  parse_url dbg hp hpo hd None None input = POk u ->
  six_ops ops -> outside_known dbg hp hpo hd u ops ->
  exists su, spec_basic_url_parse shp input None = BDone su
    /\ model_api dbg u = Some (spec_api_list shs su)
    /\ forall n, exists u' su',
         model_run dbg hp hpo hd u (firstn n ops) = Some u'
         /\ spec_run shp su (firstn n ops) = Some su'
         /\ model_api dbg u' = Some (spec_api_list shs su').
Proof.
  intros dbg hp hpo hd shp shs input u ops Hu Hc HA HX Ep.
  apply (usv_api dbg hp hpo hd shp shs (corrS dbg shs) (corrS_api dbg shs) (fun s _ => six s = true) six_ops (fun _ _ _ H => H) (six_step dbg hp hpo hd shp shs)).
  exact (parse_classes_corrS dbg hp hpo hd shp shs input u Hu (or_intror (or_intror (conj Hc (conj HA HX)))) Ep).
Qed.
Check C07_six_authority_class : forall dbg hp hpo hd shp shs input u ops, usv_list input ->
  in_class_authority input = true ->
  host_agree hpo hd shp shs (class_host_text input) -> host_extra hpo hd shp (class_host_text input) ->
  parse_url dbg hp hpo hd None None input = POk u ->
  six_ops ops -> outside_known dbg hp hpo hd u ops ->
  exists su, spec_basic_url_parse shp input None = BDone su
    /\ model_api dbg u = Some (spec_api_list shs su)
    /\ forall n, exists u' su',
         model_run dbg hp hpo hd u (firstn n ops) = Some u'
         /\ spec_run shp su (firstn n ops) = Some su'
         /\ model_api dbg u' = Some (spec_api_list shs su').
Print Assumptions C07_six_authority_class.

(* the two hypotheses on the host functions hold for the host functions as they are - Host::parse_opaque +
   Display (Model/Host.v) and the Standard's host parser / serializer (Spec/WhatwgHostParse.v), any IDNA
   oracle - on every string that does not start with '[' *)
Theorem C07_host_hyps_real : forall idna s, usv_list s -> Host.starts_with 91 s = false ->
  host_agree host_parse_opaque host_display (spec_host_parser idna) spec_host_serializer s
  /\ host_extra host_parse_opaque host_display (spec_host_parser idna) s.
Proof.
  intros idna s.
 intros Hu Hb. exact (conj (host_agree_real idna s Hu Hb) (host_extra_real idna s Hu Hb)).
Qed.
Print Assumptions C07_host_hyps_real.

(* non-vacuity with the real host functions: " N://u:p@q@H.x:080/a/../b?q#f" is in the class and its host
   text "H.x" meets both hypotheses *)
Example C07_authority_class_inhabited :
  let i1 := [32; 78; 58; 47; 47; 117; 58; 112; 64; 113; 64; 72; 46; 120; 58; 48; 56; 48; 47; 97; 47; 46; 46; 47; 98; 63; 113; 35; 102] in
  usv_list i1 /\ in_class_authority i1 = true /\ class_host_text i1 = [72; 46; 120]
  /\ host_agree host_parse_opaque host_display (spec_host_parser (fun x => Some x)) spec_host_serializer (class_host_text i1)
  /\ host_extra host_parse_opaque host_display (spec_host_parser (fun x => Some x)) (class_host_text i1).
Proof.
  cbv zeta. split; [repeat constructor; vm_compute; auto|]. split; [vm_compute; reflexivity|].
  split; [vm_compute; reflexivity|].
  assert (class_host_text [32; 78; 58; 47; 47; 117; 58; 112; 64; 113; 64; 72; 46; 120; 58; 48; 56; 48; 47; 97; 47; 46; 46; 47; 98; 63; 113; 35; 102]
          = [72; 46; 120]) as -> by (vm_compute; reflexivity).
  apply C07_host_hyps_real; [repeat constructor; vm_compute; auto | reflexivity].
Qed.

(* the 20 start URLs of the small scope and the 15 of the protocol table (special, file, non-special,
   opaque path, empty host, credentials, port, "/." marker) are related by corrS to their Standard's
   parse: for them the ten API strings agree after every prefix of every history of the six setters,
   whatever the values *)
Theorem C07_six_small_starts : forall st ops, In st (small_starts ++ proto_starts) -> six_ops ops ->
  forall u, toy_parse st = Some u -> outside_known true toy_hp toy_ho toy_hd u ops ->
  exists su, toy_sparse st = Some su
    /\ forall n, exists u' su',
         model_run true toy_hp toy_ho toy_hd u (firstn n ops) = Some u'
         /\ spec_run toy_shp su (firstn n ops) = Some su'
         /\ model_api true u' = Some (spec_api_list toy_shs su').
Proof.
  intros st ops Hin Hf u Hp Ho.
  destruct (usv_api true toy_hp toy_ho toy_hd toy_shp toy_shs (corrS true toy_shs) (corrS_api true toy_shs) (fun s _ => six s = true) six_ops (fun _ _ _ H => H) (six_step true toy_hp toy_ho toy_hd toy_shp toy_shs)
              (fun su => toy_sparse st = Some su) ops u) as (su & A & _ & B); [|exact Hf|exact Ho|exists su; auto].
  assert (exists u0 su, toy_parse st = Some u0 /\ toy_sparse st = Some su /\ corrS true toy_shs u0 su)
    as (u0 & su & Ep & Es & C).
  { apply in_app_or in Hin. destruct Hin as [Hin|Hin];
      [exact (starts_corrS _ small_starts_corrS_computed st Hin) | exact (starts_corrS _ proto_starts_corrS_computed st Hin)]. }
  rewrite Hp in Ep. injection Ep as <-. exists su. auto.
Qed.
Print Assumptions C07_six_small_starts.

(* the hypotheses can be met: "https://u:p@h:81/a?q#f" is related by corrS to its Standard's parse, the
   history below is a six-setter history, and none of its steps is in Known_C07 *)
Example C07_six_inhabited :
  exists u su, toy_parse (str "https://u:p@h:81/a?q#f") = Some u
    /\ toy_sparse (str "https://u:p@h:81/a?q#f") = Some su
    /\ corrS true toy_shs u su
    /\ six_ops [(QProtocol, str "WS:x"); (QPort, str "80"); (QProtocol, str "ftp"); (QHash, str "#a b")]
    /\ outside_known true toy_hp toy_ho toy_hd u
         [(QProtocol, str "WS:x"); (QPort, str "80"); (QProtocol, str "ftp"); (QHash, str "#a b")].
Proof.
  destruct (starts_corrS [str "https://u:p@h:81/a?q#f"] ltac:(vm_compute; reflexivity) _ (or_introl eq_refl))
    as (u & su & A & B & C).
  exists u, su. split; [exact A|]. split; [exact B|]. split; [exact C|].
  split; [cbn [six_ops six]; repeat split; repeat constructor; vm_compute; auto|].
  assert (exists x, toy_parse (str "https://u:p@h:81/a?q#f") = Some x /\ x = u) as (x & E & Ex)
    by (exists u; split; [exact A | reflexivity]).
  vm_compute in E. injection E as E. subst u. rewrite <- E. vm_compute. repeat split.
Qed.

(* the Standard's hostname setter in closed form, for a URL whose scheme is not "file": opaque path =>
   unchanged; otherwise the host state scans the value (tab / newline removed) up to the first of / ? #
   (and \ for a special URL) or a ':' outside brackets (hscan); ':' => unchanged; empty text on a special
   URL, or with credentials or a port => unchanged; host parser failure => unchanged; else the host is set *)
Theorem C07_hostname_standard_closed : forall shp su v, list_eqb (su_scheme su) str_file = false ->
  spec_set shp SetHostname su v
  = SetTo (if has_opaque_path su then su
           else hostname_decide shp su (hscan (is_special su) false [] (notnl v))).
Proof. exact spec_hostname_closed. Qed.
Print Assumptions C07_hostname_standard_closed.

(* hostname: host state with the state override "hostname state" against Parser::parse_host +
   Url::set_host_internal.  Outside classes 2, 3, 4 of Known_C07 (':' outside brackets in the value,
   F-C07-1; URL without host whose path starts with "//", F-C07-2 / F-C03-5; file URLs, F-C07-10).  The
   host parsers are arbitrary functions that agree (host_fns_ok): both fail or both succeed with the same
   text; the text is empty for the empty host and otherwise starts with neither ':' nor '@'; the empty
   host is the result exactly for the empty string. *)
Theorem C07_hostname_equiv : forall dbg hp ho hd shp shs, host_fns_ok hp ho hd shp shs ->
  forall u su v, corrS dbg shs u su -> usv_list v -> known_c07 u QHostname v = 0 ->
  exists u' su', model_set dbg hp ho hd QHostname u v = Some u' /\ spec_step shp QHostname su v = Some su'
    /\ corrS dbg shs u' su' /\ model_api dbg u' = Some (spec_api_list shs su').
Proof.
  intros dbg hp ho hd shp shs HF u su v C Hv Hk.
  exact (step_api dbg hp ho hd shp shs _ (corrS_api dbg shs) QHostname u su v (seven_step dbg hp ho hd shp shs HF u su QHostname v C eq_refl Hv Hk)).
Qed.
Check C07_hostname_equiv : forall dbg hp ho hd shp shs, host_fns_ok hp ho hd shp shs ->
  forall u su v, corrS dbg shs u su -> usv_list v -> known_c07 u QHostname v = 0 ->
  exists u' su', model_set dbg hp ho hd QHostname u v = Some u' /\ spec_step shp QHostname su v = Some su'
    /\ corrS dbg shs u' su' /\ model_api dbg u' = Some (spec_api_list shs su').
Print Assumptions C07_hostname_equiv.

(* PARTIAL C07_statement: its one-step clause (`one_step`) with R := corrS, restricted to seven of the ten
   setters and to values that are strings of scalar values.  Not in this theorem: host, pathname, href
   (C07_ten_setters_partial); hostname on file URLs (class 4 excludes them all); parse => corrS for special schemes
   (C07_parse_all_corrS). *)
Theorem C07_seven_setters_partial : forall dbg hp ho hd shp shs, host_fns_ok hp ho hd shp shs ->
  forall u su s v, corrS dbg shs u su -> seven s = true -> usv_list v -> known_c07 u s v = 0 ->
  exists u' su', model_set dbg hp ho hd s u v = Some u' /\ spec_step shp s su v = Some su'
    /\ corrS dbg shs u' su' /\ model_api dbg u' = Some (spec_api_list shs su').
Proof.
  intros dbg hp ho hd shp shs HF u su s v C Hs Hv Hk.
  exact (step_api dbg hp ho hd shp shs _ (corrS_api dbg shs) s u su v (seven_step dbg hp ho hd shp shs HF u su s v C Hs Hv Hk)).
Qed.
Check C07_seven_setters_partial : forall dbg hp ho hd shp shs, host_fns_ok hp ho hd shp shs ->
  forall u su s v, corrS dbg shs u su -> seven s = true -> usv_list v -> known_c07 u s v = 0 ->
  exists u' su', model_set dbg hp ho hd s u v = Some u' /\ spec_step shp s su v = Some su'
    /\ corrS dbg shs u' su' /\ model_api dbg u' = Some (spec_api_list shs su').
Print Assumptions C07_seven_setters_partial.

(* ... along every history of assignments through the seven setters *)
Theorem C07_seven_histories : forall dbg hp ho hd shp shs, host_fns_ok hp ho hd shp shs ->
  forall ops u su, corrS dbg shs u su -> seven_ops ops -> outside_known dbg hp ho hd u ops ->
  forall n, exists u' su',
    model_run dbg hp ho hd u (firstn n ops) = Some u'
    /\ spec_run shp su (firstn n ops) = Some su'
    /\ corrS dbg shs u' su'
    /\ model_api dbg u' = Some (spec_api_list shs su').
Proof.
  intros dbg hp ho hd shp shs HF.
  exact (usv_histories dbg hp ho hd shp shs (corrS dbg shs) (corrS_api dbg shs) (fun s _ => seven s = true) seven_ops (fun _ _ _ H => H) (seven_step dbg hp ho hd shp shs HF)).
Qed.
Check C07_seven_histories : forall dbg hp ho hd shp shs, host_fns_ok hp ho hd shp shs ->
  forall ops u su, corrS dbg shs u su -> seven_ops ops -> outside_known dbg hp ho hd u ops ->
  forall n, exists u' su',
    model_run dbg hp ho hd u (firstn n ops) = Some u'
    /\ spec_run shp su (firstn n ops) = Some su'
    /\ corrS dbg shs u' su'
    /\ model_api dbg u' = Some (spec_api_list shs su').
Print Assumptions C07_seven_histories.

(* C07_statement restricted to the seven setters and to start URLs of the three proved no-base classes of
   non-special schemes (opaque path; "scheme:/path"; "scheme://authority" with the two host hypotheses of
   C07_authority_class_corrS): parse, then any sequence of assignments with any values - the ten API strings
   agree at the start and after every prefix *)
Theorem C07_seven_classes : forall dbg hp ho hd shp shs, host_fns_ok hp ho hd shp shs ->
  forall input u ops, usv_list input -> in_corrS_class ho hd shp shs input ->
  parse_url dbg hp ho hd None None input = POk u ->
  seven_ops ops -> outside_known dbg hp ho hd u ops ->
  exists su, spec_basic_url_parse shp input None = BDone su
    /\ model_api dbg u = Some (spec_api_list shs su)
    /\ forall n, exists u' su',
         model_run dbg hp ho hd u (firstn n ops) = Some u'
         /\ spec_run shp su (firstn n ops) = Some su'
         /\ model_api dbg u' = Some (spec_api_list shs su').
Proof.
  intros dbg hp ho hd shp shs HF input u ops Hu Hc Ep.
  apply (usv_api dbg hp ho hd shp shs (corrS dbg shs) (corrS_api dbg shs) (fun s _ => seven s = true) seven_ops (fun _ _ _ H => H) (seven_step dbg hp ho hd shp shs HF)).
  exact (parse_classes_corrS dbg hp ho hd shp shs input u Hu Hc Ep).
Qed.
Check C07_seven_classes : forall dbg hp ho hd shp shs, host_fns_ok hp ho hd shp shs ->
  forall input u ops, usv_list input -> in_corrS_class ho hd shp shs input ->
  parse_url dbg hp ho hd None None input = POk u ->
  seven_ops ops -> outside_known dbg hp ho hd u ops ->
  exists su, spec_basic_url_parse shp input None = BDone su
    /\ model_api dbg u = Some (spec_api_list shs su)
    /\ forall n, exists u' su',
         model_run dbg hp ho hd u (firstn n ops) = Some u'
         /\ spec_run shp su (firstn n ops) = Some su'
         /\ model_api dbg u' = Some (spec_api_list shs su').
Print Assumptions C07_seven_classes.

(* in the shape of C07_statement: ONE abstraction relation (corrS) with the three clauses - related records
   show the same ten API strings; parsing an input of the three classes (in_corrS_class: opaque path,
   "scheme:/path", "scheme://authority" with its two host hypotheses) yields related records; every
   assignment through the seven setters outside Known_C07 neither panics nor runs out of fuel and yields
   related records.  Against C07_statement: seven setters instead of ten, three input classes instead of
   "outside Known_C01", host_fns_ok instead of hosts_agree, values that are scalar-value strings. *)
Theorem C07_statement_seven_classes : forall dbg hp ho hd shp shs, host_fns_ok hp ho hd shp shs ->
  exists R : url -> spec_url -> Prop,
    (forall u su, R u su -> model_api dbg u = Some (spec_api_list shs su))
    /\ (forall input u, usv_list input -> in_corrS_class ho hd shp shs input ->
          parse_url dbg hp ho hd None None input = POk u ->
          exists su, spec_basic_url_parse shp input None = BDone su /\ R u su)
    /\ (forall u su s v, R u su -> seven s = true -> usv_list v -> known_c07 u s v = 0 ->
          exists u' su', model_set dbg hp ho hd s u v = Some u' /\ spec_step shp s su v = Some su' /\ R u' su').
Proof.
  intros dbg hp ho hd shp shs HF. exists (corrS dbg shs). split; [exact (corrS_api dbg shs)|].
  split; [exact (parse_classes_corrS dbg hp ho hd shp shs) | exact (seven_step dbg hp ho hd shp shs HF)].
Qed.
Check C07_statement_seven_classes : forall dbg hp ho hd shp shs, host_fns_ok hp ho hd shp shs ->
  exists R : url -> spec_url -> Prop,
    (forall u su, R u su -> model_api dbg u = Some (spec_api_list shs su))
    /\ (forall input u, usv_list input -> in_corrS_class ho hd shp shs input ->
          parse_url dbg hp ho hd None None input = POk u ->
          exists su, spec_basic_url_parse shp input None = BDone su /\ R u su)
    /\ (forall u su s v, R u su -> seven s = true -> usv_list v -> known_c07 u s v = 0 ->
          exists u' su', model_set dbg hp ho hd s u v = Some u' /\ spec_step shp s su v = Some su' /\ R u' su').
Print Assumptions C07_statement_seven_classes.

(* the 35 start URLs of the small scope and of the protocol table (http, https, ws, ftp, file, non-special,
   opaque path, empty host, credentials, port, "/." marker), parsed with the safe host functions below, are
   related by corrS to their Standard's parse (by computation): for them the ten API strings agree after
   every prefix of every history of the seven setters, whatever the values - special and file URLs included *)
Theorem C07_seven_small_starts : forall st ops, In st (small_starts ++ proto_starts) -> seven_ops ops ->
  forall u, safe_parse st = Some u -> outside_known true safe_hp safe_ho toy_hd u ops ->
  exists su, safe_sparse st = Some su
    /\ forall n, exists u' su',
         model_run true safe_hp safe_ho toy_hd u (firstn n ops) = Some u'
         /\ spec_run safe_shp su (firstn n ops) = Some su'
         /\ model_api true u' = Some (spec_api_list toy_shs su').
Proof.
  intros st ops Hin Hf u Hp Ho.
  pose proof (proj1 (forallb_forall _ _) starts_corrS_safe_computed st Hin) as H.
  unfold start_corrS_safe_b in H. rewrite Hp in H.
  destruct (safe_sparse st) as [su|]; [|discriminate H]. apply andb_true_iff in H. destruct H as [H1 H2].
  destruct (usv_api true safe_hp safe_ho toy_hd safe_shp toy_shs (corrS true toy_shs) (corrS_api true toy_shs) (fun s _ => seven s = true) seven_ops (fun _ _ _ H => H) (seven_step true safe_hp safe_ho toy_hd safe_shp toy_shs safe_host_fns_ok)
              (eq su) ops u) as (su' & <- & _ & B); [|exact Hf|exact Ho|exists su; auto].
  exists su. split; [reflexivity|]. split; [exact (corr_b_sound _ _ _ _ H1) | exact (sane_b_sound _ H2)].
Qed.
Print Assumptions C07_seven_small_starts.

(* the hypothesis on the host functions can be met: every non-empty text that starts with neither ':' nor
   '@' is a domain / an opaque host that serialises as itself *)
Theorem C07_host_fns_ok_inhabited : host_fns_ok safe_hp safe_ho toy_hd safe_shp toy_shs.
Proof. exact safe_host_fns_ok. Qed.
Print Assumptions C07_host_fns_ok_inhabited.

(* ... and a seven-setter history on a start URL of the authority class, with these functions: "n://u@h:8/p",
   hostname := "x.y/z", protocol := "m", hostname := "" (refused: credentials), port := "", username := "",
   hostname := "" *)
Example C07_seven_inhabited :
  let input := str "n://u@h:8/p" in
  let ops := [(QHostname, str "x.y/z"); (QProtocol, str "m"); (QHostname, []); (QPort, []); (QUsername, []); (QHostname, [])] in
  usv_list input /\ in_class_authority input = true
  /\ host_agree safe_ho toy_hd safe_shp toy_shs (class_host_text input)
  /\ host_extra safe_ho toy_hd safe_shp (class_host_text input)
  /\ seven_ops ops
  /\ exists u, parse_url true safe_hp safe_ho toy_hd None None input = POk u
       /\ outside_known true safe_hp safe_ho toy_hd u ops
       /\ option_map q_href (model_run true safe_hp safe_ho toy_hd u ops) = Some (str "m:///p").
Proof.
  cbv zeta. split; [repeat constructor; vm_compute; auto|]. split; [vm_compute; reflexivity|].
  split; [unfold host_agree; vm_compute; repeat split; try reflexivity; intros H; discriminate H|].
  split; [unfold host_extra; vm_compute; repeat split; try reflexivity; intros H; discriminate H|].
  split; [cbn [seven_ops seven]; repeat split; repeat constructor; vm_compute; auto|].
  eexists. split; [vm_compute; reflexivity|]. split; vm_compute; repeat split.
Qed.

(* every URL parsed outside Known_C01; seven setters *)

(* from the relation of the C01 equivalence to the relation of the C07 equivalence: `related` (well-formed, same
   ten API strings, same text before the fragment / the query, same cannot-be-a-base flag, spec_valid) gives
   corrS, given what the ten strings do not determine (parse_extra: host text facts, clean username, "no host =>
   no credentials, no port, not special" of the model record; port <= 65535 and a host that is the empty host or
   has a non-empty text on the Standard's side), a scheme other than "file" and a host on special records.  The
   layout flags of corr ("//", '@', "/." marker, an empty password) are read off the two equal serializations. *)
Theorem C07_related_corrS : forall dbg shs u su,
  related dbg shs u su -> parse_extra dbg shs u su ->
  list_eqb (su_scheme su) str_file = false ->
  (is_special su = true -> opt_is_some (su_host su) = true) ->
  corrS dbg shs u su.
Proof. exact related_corrS. Qed.
Check C07_related_corrS : forall dbg shs u su,
  related dbg shs u su -> parse_extra dbg shs u su ->
  list_eqb (su_scheme su) str_file = false ->
  (is_special su = true -> opt_is_some (su_host su) = true) ->
  corrS dbg shs u su.
Print Assumptions C07_related_corrS.

(* two invariants of the Standard's basic URL parser (no base, no state override), for every input and host
   parser: the host of the result is null, the empty host or a result of the host parser; the port is <= 65535 *)
Theorem C07_spec_parse_invariants : forall shp input su,
  spec_basic_url_parse shp input None = BDone su ->
  match su_host su with
  | None => True
  | Some x => x = SEmpty \/ exists o s, host_parsing shp o s = Some x
  end
  /\ match su_port su with Some x => x <= 65535 | None => True end.
Proof. exact spec_parse_uinv. Qed.
Check C07_spec_parse_invariants : forall shp input su,
  spec_basic_url_parse shp input None = BDone su ->
  match su_host su with
  | None => True
  | Some x => x = SEmpty \/ exists o s, host_parsing shp o s = Some x
  end
  /\ match su_port su with Some x => x <= 65535 | None => True end.
Print Assumptions C07_spec_parse_invariants.

(* three facts about every record parse_url returns without a base for a scalar-value input whose scheme is not
   "file" (beyond wf_b and the host text facts): the stored username has no byte of the userinfo percent-encode
   set; a record with "//" and without host has no credentials, no port and a scheme that is not special *)
Theorem C07_parse_model_extra : forall dbg hp hpo hd ovr, HostWf hp hpo hd ->
  forall input u, usv_list input -> input_is_file input = false ->
  parse_url dbg hp hpo hd ovr None input = POk u -> model_extra dbg u.
Proof. exact parse_nobase_extra. Qed.
Print Assumptions C07_parse_model_extra.

(* the second clause of C07_statement with R := corrS for EVERY scalar-value input outside Known_C01 whose scheme is
   not "file" (special schemes included; class 1 of Known_C01 is the file inputs outside the recogniser k_file_ok,
   so file inputs inside k_file_ok are outside Known_C01, and the bridge related => corrS is proved for schemes
   other than "file": input_is_file input = false is an explicit hypothesis; the file inputs inside k_file_ok are
   in C07_parse_all_corrS2): from C01_statement_all through C07_related_corrS.  Host functions: host_parse_ok =
   host_fns_ok (the two sides agree) + HostWf (the text of a non-empty host is not empty, is led by neither ':' nor
   '@' and does not end with '/') + the empty host serialises as the empty string *)
Theorem C07_parse_all_corrS : forall dbg hp ho hd shp shs, host_parse_ok hp ho hd shp shs ->
  forall input u, usv_list input -> known_c01 None input = 0 -> input_is_file input = false ->
  parse_url dbg hp ho hd None None input = POk u ->
  exists su, spec_basic_url_parse shp input None = BDone su /\ corrS dbg shs u su.
Proof.
  intros dbg hp ho hd shp shs HP. exact (parse_all_corrS_on dbg hp ho hd shp shs (host_parse_ok_on_of_all hp ho hd shp shs HP)).
Qed.
Check C07_parse_all_corrS : forall dbg hp ho hd shp shs, host_parse_ok hp ho hd shp shs ->
  forall input u, usv_list input -> known_c01 None input = 0 -> input_is_file input = false ->
  parse_url dbg hp ho hd None None input = POk u ->
  exists su, spec_basic_url_parse shp input None = BDone su /\ corrS dbg shs u su.
Print Assumptions C07_parse_all_corrS.

(* C07_statement restricted to the seven setters, for EVERY URL parsed outside Known_C01: parse, then any sequence
   of hostname / protocol / hash / search / username / password / port assignments with any values, each outside
   Known_C07 - the ten API strings agree at the start and after every prefix *)
Theorem C07_seven_all : forall dbg hp ho hd shp shs, host_parse_ok hp ho hd shp shs ->
  forall input u ops, usv_list input -> known_c01 None input = 0 -> input_is_file input = false ->
  parse_url dbg hp ho hd None None input = POk u ->
  seven_ops ops -> outside_known dbg hp ho hd u ops ->
  exists su, spec_basic_url_parse shp input None = BDone su
    /\ model_api dbg u = Some (spec_api_list shs su)
    /\ forall n, exists u' su',
         model_run dbg hp ho hd u (firstn n ops) = Some u'
         /\ spec_run shp su (firstn n ops) = Some su'
         /\ model_api dbg u' = Some (spec_api_list shs su').
Proof.
  intros dbg hp ho hd shp shs HP input u ops Hu Hk Hif Ep.
  apply (usv_api dbg hp ho hd shp shs (corrS dbg shs) (corrS_api dbg shs) (fun s _ => seven s = true) seven_ops (fun _ _ _ H => H) (seven_step dbg hp ho hd shp shs (proj1 HP))).
  exact (C07_parse_all_corrS dbg hp ho hd shp shs HP input u Hu Hk Hif Ep).
Qed.
Check C07_seven_all : forall dbg hp ho hd shp shs, host_parse_ok hp ho hd shp shs ->
  forall input u ops, usv_list input -> known_c01 None input = 0 -> input_is_file input = false ->
  parse_url dbg hp ho hd None None input = POk u ->
  seven_ops ops -> outside_known dbg hp ho hd u ops ->
  exists su, spec_basic_url_parse shp input None = BDone su
    /\ model_api dbg u = Some (spec_api_list shs su)
    /\ forall n, exists u' su',
         model_run dbg hp ho hd u (firstn n ops) = Some u'
         /\ spec_run shp su (firstn n ops) = Some su'
         /\ model_api dbg u' = Some (spec_api_list shs su').
Print Assumptions C07_seven_all.

(* in the shape of C07_statement: ONE abstraction relation (corrS) with the three clauses, the parse clause as
   in C07_statement ("outside Known_C01").  Against C07_statement: seven setters instead of ten, host_parse_ok
   instead of hosts_agree, inputs and values that are scalar-value strings. *)
Theorem C07_statement_seven_all : forall dbg hp ho hd shp shs, host_parse_ok hp ho hd shp shs ->
  exists R : url -> spec_url -> Prop,
    (forall u su, R u su -> model_api dbg u = Some (spec_api_list shs su))
    /\ (forall input u, usv_list input -> known_c01 None input = 0 -> input_is_file input = false ->
          parse_url dbg hp ho hd None None input = POk u ->
          exists su, spec_basic_url_parse shp input None = BDone su /\ R u su)
    /\ (forall u su s v, R u su -> seven s = true -> usv_list v -> known_c07 u s v = 0 ->
          exists u' su', model_set dbg hp ho hd s u v = Some u' /\ spec_step shp s su v = Some su' /\ R u' su').
Proof.
  intros dbg hp ho hd shp shs HP. exists (corrS dbg shs). split; [exact (corrS_api dbg shs)|].
  split; [exact (C07_parse_all_corrS dbg hp ho hd shp shs HP) | exact (seven_step dbg hp ho hd shp shs (proj1 HP))].
Qed.
Check C07_statement_seven_all : forall dbg hp ho hd shp shs, host_parse_ok hp ho hd shp shs ->
  exists R : url -> spec_url -> Prop,
    (forall u su, R u su -> model_api dbg u = Some (spec_api_list shs su))
    /\ (forall input u, usv_list input -> known_c01 None input = 0 -> input_is_file input = false ->
          parse_url dbg hp ho hd None None input = POk u ->
          exists su, spec_basic_url_parse shp input None = BDone su /\ R u su)
    /\ (forall u su s v, R u su -> seven s = true -> usv_list v -> known_c07 u s v = 0 ->
          exists u' su', model_set dbg hp ho hd s u v = Some u' /\ spec_step shp s su v = Some su' /\ R u' su').
Print Assumptions C07_statement_seven_all.

(* the hypothesis on the host functions can be met: every non-empty text that starts with neither ':' nor '@' and
   does not end with '/' is a domain / an opaque host that serialises as itself *)
Theorem C07_host_parse_ok_inhabited : host_parse_ok ok_hp ok_ho toy_hd ok_shp toy_shs.
Proof. exact ok_host_parse_ok. Qed.
Print Assumptions C07_host_parse_ok_inhabited.

(* ... and a seven-setter history on a special start URL with these functions: " hTTps:\\u:p@H.x:0443/a/../b?q#f",
   hostname := "y.z/w", port := "81", protocol := "ws", username := "", hash := "" *)
Example C07_seven_all_inhabited :
  let input := str " hTTps:\\u:p@H.x:0443/a/../b?q#f" in
  let ops := [(QHostname, str "y.z/w"); (QPort, str "81"); (QProtocol, str "ws"); (QUsername, []); (QHash, [])] in
  usv_list input /\ known_c01 None input = 0 /\ input_is_file input = false /\ seven_ops ops
  /\ exists u, parse_url true ok_hp ok_ho toy_hd None None input = POk u
       /\ outside_known true ok_hp ok_ho toy_hd u ops
       /\ option_map q_href (model_run true ok_hp ok_ho toy_hd u ops) = Some (str "ws://:p@y.z:81/b?q").
Proof.
  cbv zeta. split; [repeat constructor; vm_compute; auto|]. split; [vm_compute; reflexivity|].
  split; [vm_compute; reflexivity|].
  split; [cbn [seven_ops seven]; repeat split; repeat constructor; vm_compute; auto|].
  eexists. split; [vm_compute; reflexivity|]. split; vm_compute; repeat split.
Qed.

(* href: the parser without a base.  Outside classes 11-14 of Known_C07 (the value is in Known_C01) the href setter
   is the Standard's on every corrS-related pair: both parsers fail (URL unchanged on both sides), or both succeed
   with corrS-related records - EXCEPT the one arm of C01 that is no agreement: a new URL whose serialization is
   longer than u32::MAX bytes (the code answers ParseError::Overflow and keeps the URL it had, the Standard sets the
   new one); href_fits excludes it (a value of more than 4 GiB).  href_ok = href_fits and the value's scheme is not
   "file" (file values inside k_file_ok are outside Known_C01 but the bridge to corrS does not cover them;
   C07_href_equiv2 has them). *)
Theorem C07_href_equiv : forall dbg hp ho hd shp shs, host_parse_ok hp ho hd shp shs ->
  forall u su v, corrS dbg shs u su -> usv_list v -> known_c07 u QHref v = 0 -> href_ok shp shs v ->
  exists u' su', model_set dbg hp ho hd QHref u v = Some u' /\ spec_step shp QHref su v = Some su'
    /\ corrS dbg shs u' su'.
Proof.
  intros dbg hp ho hd shp shs HP. exact (href_step_on dbg hp ho hd shp shs (host_parse_ok_on_of_all hp ho hd shp shs HP)).
Qed.
Check C07_href_equiv : forall dbg hp ho hd shp shs, host_parse_ok hp ho hd shp shs ->
  forall u su v, corrS dbg shs u su -> usv_list v -> known_c07 u QHref v = 0 ->
  match spec_basic_url_parse shp v None with
  | BDone su' => nlen (get_href shs su') <= U32_MAX_P
  | _ => True
  end /\ input_is_file v = false ->
  exists u' su', model_set dbg hp ho hd QHref u v = Some u' /\ spec_step shp QHref su v = Some su'
    /\ corrS dbg shs u' su'.
Print Assumptions C07_href_equiv.

(* PARTIAL C07_statement: one assignment through any of EIGHT setters (the seven and href) preserves corrS ... *)
Theorem C07_eight_setters_partial : forall dbg hp ho hd shp shs, host_parse_ok hp ho hd shp shs ->
  forall u su s v, corrS dbg shs u su -> (seven s = true \/ (s = QHref /\ href_ok shp shs v)) -> usv_list v ->
  known_c07 u s v = 0 ->
  exists u' su', model_set dbg hp ho hd s u v = Some u' /\ spec_step shp s su v = Some su' /\ corrS dbg shs u' su'.
Proof.
  intros dbg hp ho hd shp shs HP u su s v C [Hs|Hf];
    [exact (ten_step dbg hp ho hd shp shs HP u su s v C (or_introl (or_introl Hs)))
    | exact (ten_step dbg hp ho hd shp shs HP u su s v C (or_introl (or_intror (or_intror Hf))))].
Qed.
Check C07_eight_setters_partial : forall dbg hp ho hd shp shs, host_parse_ok hp ho hd shp shs ->
  forall u su s v, corrS dbg shs u su -> (seven s = true \/ (s = QHref /\ href_ok shp shs v)) -> usv_list v ->
  known_c07 u s v = 0 ->
  exists u' su', model_set dbg hp ho hd s u v = Some u' /\ spec_step shp s su v = Some su' /\ corrS dbg shs u' su'.
Print Assumptions C07_eight_setters_partial.

(* ... and so does every history of them: the ten API strings agree after every prefix *)
Theorem C07_eight_histories : forall dbg hp ho hd shp shs, host_parse_ok hp ho hd shp shs ->
  forall ops u su, corrS dbg shs u su -> eight_ops shp shs ops -> outside_known dbg hp ho hd u ops ->
  forall n, exists u' su',
    model_run dbg hp ho hd u (firstn n ops) = Some u'
    /\ spec_run shp su (firstn n ops) = Some su'
    /\ corrS dbg shs u' su'
    /\ model_api dbg u' = Some (spec_api_list shs su').
Proof.
  intros dbg hp ho hd shp shs HP.
  exact (usv_histories dbg hp ho hd shp shs (corrS dbg shs) (corrS_api dbg shs) (fun s v => seven s = true \/ (s = QHref /\ href_ok shp shs v)) (eight_ops shp shs) (fun _ _ _ H => H) (C07_eight_setters_partial dbg hp ho hd shp shs HP)).
Qed.
Check C07_eight_histories : forall dbg hp ho hd shp shs, host_parse_ok hp ho hd shp shs ->
  forall ops u su, corrS dbg shs u su -> eight_ops shp shs ops -> outside_known dbg hp ho hd u ops ->
  forall n, exists u' su',
    model_run dbg hp ho hd u (firstn n ops) = Some u'
    /\ spec_run shp su (firstn n ops) = Some su'
    /\ corrS dbg shs u' su'
    /\ model_api dbg u' = Some (spec_api_list shs su').
Print Assumptions C07_eight_histories.

(* in the shape of C07_statement: ONE abstraction relation (corrS), the parse clause as in C07_statement, the
   one-step clause for eight of the ten setters.  Against C07_statement: host and pathname missing (and hostname on
   file URLs: class 4 of Known_C07 covers them all); href values whose URL exceeds u32::MAX bytes; host_parse_ok
   instead of hosts_agree; inputs and values that are scalar-value strings. *)
Theorem C07_statement_eight_all : forall dbg hp ho hd shp shs, host_parse_ok hp ho hd shp shs ->
  exists R : url -> spec_url -> Prop,
    (forall u su, R u su -> model_api dbg u = Some (spec_api_list shs su))
    /\ (forall input u, usv_list input -> known_c01 None input = 0 -> input_is_file input = false ->
          parse_url dbg hp ho hd None None input = POk u ->
          exists su, spec_basic_url_parse shp input None = BDone su /\ R u su)
    /\ (forall u su s v, R u su -> (seven s = true \/ (s = QHref /\ href_ok shp shs v)) -> usv_list v ->
          known_c07 u s v = 0 ->
          exists u' su', model_set dbg hp ho hd s u v = Some u' /\ spec_step shp s su v = Some su' /\ R u' su').
Proof.
  intros dbg hp ho hd shp shs HP. exists (corrS dbg shs). split; [exact (corrS_api dbg shs)|].
  split; [exact (C07_parse_all_corrS dbg hp ho hd shp shs HP) | exact (C07_eight_setters_partial dbg hp ho hd shp shs HP)].
Qed.
Check C07_statement_eight_all : forall dbg hp ho hd shp shs, host_parse_ok hp ho hd shp shs ->
  exists R : url -> spec_url -> Prop,
    (forall u su, R u su -> model_api dbg u = Some (spec_api_list shs su))
    /\ (forall input u, usv_list input -> known_c01 None input = 0 -> input_is_file input = false ->
          parse_url dbg hp ho hd None None input = POk u ->
          exists su, spec_basic_url_parse shp input None = BDone su /\ R u su)
    /\ (forall u su s v, R u su -> (seven s = true \/ (s = QHref /\ href_ok shp shs v)) -> usv_list v ->
          known_c07 u s v = 0 ->
          exists u' su', model_set dbg hp ho hd s u v = Some u' /\ spec_step shp s su v = Some su' /\ R u' su').
Print Assumptions C07_statement_eight_all.

(* the hypotheses can be met: on "a://h/p", href := " hTTps:\\u:p@H.x:0443/a/../b?q#f" (fits), then hostname := "y.z" *)
Example C07_eight_inhabited :
  let ops := [(QHref, str " hTTps:\\u:p@H.x:0443/a/../b?q#f"); (QHostname, str "y.z")] in
  eight_ops ok_shp toy_shs ops
  /\ exists u, parse_url true ok_hp ok_ho toy_hd None None (str "a://h/p") = POk u
       /\ outside_known true ok_hp ok_ho toy_hd u ops
       /\ option_map q_href (model_run true ok_hp ok_ho toy_hd u ops) = Some (str "https://u:p@y.z/b?q#f").
Proof.
  cbv zeta. split.
  - cbn [eight_ops]. split; [right; split; [reflexivity|]; split; [unfold href_fits; vm_compute; discriminate | vm_compute; reflexivity]|].
    split; [repeat constructor; vm_compute; auto|]. split; [left; reflexivity|].
    split; [repeat constructor; vm_compute; auto | exact I].
  - eexists. split; [vm_compute; reflexivity|]. split; vm_compute; repeat split.
Qed.

(* the Standard's host setter is its hostname setter on a value whose host-state scan does not stop at a ':' outside
   brackets (no port part), for a URL whose scheme is not "file" *)
Theorem C07_host_standard_portless : forall shp su v, list_eqb (su_scheme su) str_file = false ->
  snd (hscan (is_special su) false [] (notnl v)) = false ->
  spec_set shp SetHost su v = spec_set shp SetHostname su v.
Proof. exact spec_host_nocolon. Qed.
Print Assumptions C07_host_standard_portless.

(* host on such values (host_value_portless: no ':' outside brackets before the first of / ? # and, for special
   schemes, \), outside classes 2, 3, 4, 7 of Known_C07: url::quirks::set_host parses no new port and refuses the
   empty host on the same records as set_hostname (class 7, F-C07-8, is exactly where it forgets the password), so it
   is the Standard's on every corrS-related pair.  Values with a port part: C07_host_equiv below. *)
Theorem C07_host_portless_equiv : forall dbg hp ho hd shp shs, host_fns_ok hp ho hd shp shs ->
  forall u su v, corrS dbg shs u su -> usv_list v -> known_c07 u QHost v = 0 -> host_value_portless u v = true ->
  exists u' su', model_set dbg hp ho hd QHost u v = Some u' /\ spec_step shp QHost su v = Some su'
    /\ corrS dbg shs u' su' /\ model_api dbg u' = Some (spec_api_list shs su').
Proof.
  intros dbg hp ho hd shp shs HF u su v C Hv Hk Hp.
  exact (step_api dbg hp ho hd shp shs _ (corrS_api dbg shs) QHost u su v (host_portless_step dbg hp ho hd shp shs HF u su v C Hv Hk Hp)).
Qed.
Check C07_host_portless_equiv : forall dbg hp ho hd shp shs, host_fns_ok hp ho hd shp shs ->
  forall u su v, corrS dbg shs u su -> usv_list v -> known_c07 u QHost v = 0 ->
  negb (host_colon (no_tnl v) (st_is_special (scheme_type_of (u_scheme_or_empty u)))) = true ->
  exists u' su', model_set dbg hp ho hd QHost u v = Some u' /\ spec_step shp QHost su v = Some su'
    /\ corrS dbg shs u' su' /\ model_api dbg u' = Some (spec_api_list shs su').
Print Assumptions C07_host_portless_equiv.

(* the hypotheses can be met: "a://:pw@h:8/p" .host = "x.y/z" *)
Example C07_host_portless_inhabited :
  exists u, parse_url true ok_hp ok_ho toy_hd None None (str "a://:pw@h:8/p") = POk u
    /\ known_c07 u QHost (str "x.y/z") = 0 /\ host_value_portless u (str "x.y/z") = true
    /\ option_map q_href (model_set true ok_hp ok_ho toy_hd QHost u (str "x.y/z")) = Some (str "a://:pw@x.y:8/p").
Proof. eexists. split; [vm_compute; reflexivity|]. vm_compute. repeat split. Qed.

(* the Standard's host setter in closed form, for a URL whose scheme is not "file": the scan of the host state
   (hscan: buffer, stopped at a ':' outside brackets) decides - no ':': the hostname setter's outcome
   (hostname_decide); a ':' (host_port_decide): empty buffer or host-parser failure = unchanged, otherwise the host is
   set and the port state runs on the text behind the ':' (hrest) with a state override: its leading digits are the
   new port (null if the scheme's default), no digit or a number above 65535 = failure with the host ALREADY changed
   and the port kept *)
Theorem C07_host_standard_closed : forall shp su v, list_eqb (su_scheme su) str_file = false ->
  spec_set shp SetHost su v = SetTo (if has_opaque_path su then su else host_decide shp su (notnl v)).
Proof. exact spec_host_closed. Qed.
Check C07_host_standard_closed : forall shp su v, list_eqb (su_scheme su) str_file = false ->
  spec_set shp SetHost su v
  = SetTo (if has_opaque_path su then su
           else let r := hscan (is_special su) false [] (notnl v) in
                if snd r then host_port_decide shp su (fst r) (hrest (is_special su) false (notnl v))
                else hostname_decide shp su r).
Print Assumptions C07_host_standard_closed.

(* host on EVERY value (with or without a port part), outside classes 2, 3, 4, 7 of Known_C07: url::quirks::set_host
   is the Standard's host setter on every corrS-related pair - no panic, related again, same ten API strings.  With a
   port part: Parser::parse_host leaves the ':' at the head of the remaining input, the text behind it goes to
   parse_port in the setter context; an error (no digit, above 65535) or an empty rest = the host alone is replaced,
   a success = host and port are replaced (set_host_internal .. (Some p)).  Class 2 (non-special URL, value led by
   ':', F-C07-6) is exactly where the code sets an empty host and the Standard fails. *)
Theorem C07_host_equiv : forall dbg hp ho hd shp shs, host_fns_ok hp ho hd shp shs ->
  forall u su v, corrS dbg shs u su -> usv_list v -> known_c07 u QHost v = 0 ->
  exists u' su', model_set dbg hp ho hd QHost u v = Some u' /\ spec_step shp QHost su v = Some su'
    /\ corrS dbg shs u' su' /\ model_api dbg u' = Some (spec_api_list shs su').
Proof.
  intros dbg hp ho hd shp shs HF u su v C Hv Hk.
  exact (step_api dbg hp ho hd shp shs _ (corrS_api dbg shs) QHost u su v (host_step dbg hp ho hd shp shs HF u su v C Hv Hk)).
Qed.
Check C07_host_equiv : forall dbg hp ho hd shp shs, host_fns_ok hp ho hd shp shs ->
  forall u su v, corrS dbg shs u su -> usv_list v -> known_c07 u QHost v = 0 ->
  exists u' su', model_set dbg hp ho hd QHost u v = Some u' /\ spec_step shp QHost su v = Some su'
    /\ corrS dbg shs u' su' /\ model_api dbg u' = Some (spec_api_list shs su').
Print Assumptions C07_host_equiv.

(* the hypotheses can be met: "a://:pw@h:8/p" .host = "x.y:0081/z" (host and port replaced), = "x.y:99999" (port
   above 65535: host replaced, port kept), = "x.y:" (host replaced, port kept), on "http://h:8/" = "x.y:80" (default
   port: removed) *)
Example C07_host_equiv_inhabited :
  exists u, parse_url true ok_hp ok_ho toy_hd None None (str "a://:pw@h:8/p") = POk u
    /\ known_c07 u QHost (str "x.y:0081/z") = 0 /\ host_value_portless u (str "x.y:0081/z") = false
    /\ option_map q_href (model_set true ok_hp ok_ho toy_hd QHost u (str "x.y:0081/z")) = Some (str "a://:pw@x.y:81/p")
    /\ option_map q_href (model_set true ok_hp ok_ho toy_hd QHost u (str "x.y:99999")) = Some (str "a://:pw@x.y:8/p")
    /\ option_map q_href (model_set true ok_hp ok_ho toy_hd QHost u (str "x.y:")) = Some (str "a://:pw@x.y:8/p")
    /\ exists w, parse_url true ok_hp ok_ho toy_hd None None (str "http://h:8/") = POk w
         /\ known_c07 w QHost (str "x.y:80") = 0
         /\ option_map q_href (model_set true ok_hp ok_ho toy_hd QHost w (str "x.y:80")) = Some (str "http://x.y/").
Proof.
  eexists. split; [vm_compute; reflexivity|]. do 5 (split; [vm_compute; reflexivity|]).
  eexists. split; [vm_compute; reflexivity|]. split; vm_compute; reflexivity.
Qed.

(* PARTIAL C07_statement: one assignment through any of NINE setters (the seven, href, host) preserves corrS ...
   nine_ok s v: any value for the seven and for host; for href a value that fits u32 and whose scheme is not "file" *)
Theorem C07_nine_setters_partial : forall dbg hp ho hd shp shs, host_parse_ok hp ho hd shp shs ->
  forall u su s v, corrS dbg shs u su -> nine_ok shp shs s v -> usv_list v -> known_c07 u s v = 0 ->
  exists u' su', model_set dbg hp ho hd s u v = Some u' /\ spec_step shp s su v = Some su' /\ corrS dbg shs u' su'.
Proof.
  intros dbg hp ho hd shp shs HP u su s v C H. exact (ten_step dbg hp ho hd shp shs HP u su s v C (or_introl H)).
Qed.
Check C07_nine_setters_partial : forall dbg hp ho hd shp shs, host_parse_ok hp ho hd shp shs ->
  forall u su s v, corrS dbg shs u su ->
  (seven s = true \/ s = QHost \/ (s = QHref /\ href_fits shp shs v /\ input_is_file v = false)) -> usv_list v ->
  known_c07 u s v = 0 ->
  exists u' su', model_set dbg hp ho hd s u v = Some u' /\ spec_step shp s su v = Some su' /\ corrS dbg shs u' su'.
Print Assumptions C07_nine_setters_partial.

(* ... and so does every history of them: the ten API strings agree after every prefix *)
Theorem C07_nine_histories : forall dbg hp ho hd shp shs, host_parse_ok hp ho hd shp shs ->
  forall ops u su, corrS dbg shs u su -> nine_ops shp shs ops -> outside_known dbg hp ho hd u ops ->
  forall n, exists u' su',
    model_run dbg hp ho hd u (firstn n ops) = Some u'
    /\ spec_run shp su (firstn n ops) = Some su'
    /\ corrS dbg shs u' su'
    /\ model_api dbg u' = Some (spec_api_list shs su').
Proof.
  intros dbg hp ho hd shp shs HP.
  exact (usv_histories dbg hp ho hd shp shs (corrS dbg shs) (corrS_api dbg shs) (nine_ok shp shs) (nine_ops shp shs) (fun _ _ _ H => H) (C07_nine_setters_partial dbg hp ho hd shp shs HP)).
Qed.
Check C07_nine_histories : forall dbg hp ho hd shp shs, host_parse_ok hp ho hd shp shs ->
  forall ops u su, corrS dbg shs u su -> nine_ops shp shs ops -> outside_known dbg hp ho hd u ops ->
  forall n, exists u' su',
    model_run dbg hp ho hd u (firstn n ops) = Some u'
    /\ spec_run shp su (firstn n ops) = Some su'
    /\ corrS dbg shs u' su'
    /\ model_api dbg u' = Some (spec_api_list shs su').
Print Assumptions C07_nine_histories.

(* parse (outside Known_C01, scheme not "file"), then any history of the nine, each step outside Known_C07: the ten
   API strings agree at the start and after every prefix *)
Theorem C07_nine_all : forall dbg hp ho hd shp shs, host_parse_ok hp ho hd shp shs ->
  forall input u ops, usv_list input -> known_c01 None input = 0 -> input_is_file input = false ->
  parse_url dbg hp ho hd None None input = POk u ->
  nine_ops shp shs ops -> outside_known dbg hp ho hd u ops ->
  exists su, spec_basic_url_parse shp input None = BDone su
    /\ model_api dbg u = Some (spec_api_list shs su)
    /\ forall n, exists u' su',
         model_run dbg hp ho hd u (firstn n ops) = Some u'
         /\ spec_run shp su (firstn n ops) = Some su'
         /\ model_api dbg u' = Some (spec_api_list shs su').
Proof.
  intros dbg hp ho hd shp shs HP input u ops Hu Hk Hif Ep.
  apply (usv_api dbg hp ho hd shp shs (corrS dbg shs) (corrS_api dbg shs) (nine_ok shp shs) (nine_ops shp shs) (fun _ _ _ H => H) (C07_nine_setters_partial dbg hp ho hd shp shs HP)).
  exact (C07_parse_all_corrS dbg hp ho hd shp shs HP input u Hu Hk Hif Ep).
Qed.
Check C07_nine_all : forall dbg hp ho hd shp shs, host_parse_ok hp ho hd shp shs ->
  forall input u ops, usv_list input -> known_c01 None input = 0 -> input_is_file input = false ->
  parse_url dbg hp ho hd None None input = POk u ->
  nine_ops shp shs ops -> outside_known dbg hp ho hd u ops ->
  exists su, spec_basic_url_parse shp input None = BDone su
    /\ model_api dbg u = Some (spec_api_list shs su)
    /\ forall n, exists u' su',
         model_run dbg hp ho hd u (firstn n ops) = Some u'
         /\ spec_run shp su (firstn n ops) = Some su'
         /\ model_api dbg u' = Some (spec_api_list shs su').
Print Assumptions C07_nine_all.

(* in the shape of C07_statement: ONE abstraction relation (corrS), the parse clause, the one-step clause for nine of
   the ten setters.  Against C07_statement: pathname missing (and host / hostname on file URLs: class 4 of Known_C07
   covers them all); inputs and href values whose scheme is "file" (those inside k_file_ok are outside Known_C01);
   href values whose URL exceeds u32::MAX bytes; host_parse_ok instead of hosts_agree; inputs and values that are
   scalar-value strings. *)
Theorem C07_statement_nine_all : forall dbg hp ho hd shp shs, host_parse_ok hp ho hd shp shs ->
  exists R : url -> spec_url -> Prop,
    (forall u su, R u su -> model_api dbg u = Some (spec_api_list shs su))
    /\ (forall input u, usv_list input -> known_c01 None input = 0 -> input_is_file input = false ->
          parse_url dbg hp ho hd None None input = POk u ->
          exists su, spec_basic_url_parse shp input None = BDone su /\ R u su)
    /\ (forall u su s v, R u su -> nine_ok shp shs s v -> usv_list v -> known_c07 u s v = 0 ->
          exists u' su', model_set dbg hp ho hd s u v = Some u' /\ spec_step shp s su v = Some su' /\ R u' su').
Proof.
  intros dbg hp ho hd shp shs HP. exists (corrS dbg shs). split; [exact (corrS_api dbg shs)|].
  split; [exact (C07_parse_all_corrS dbg hp ho hd shp shs HP) | exact (C07_nine_setters_partial dbg hp ho hd shp shs HP)].
Qed.
Check C07_statement_nine_all : forall dbg hp ho hd shp shs, host_parse_ok hp ho hd shp shs ->
  exists R : url -> spec_url -> Prop,
    (forall u su, R u su -> model_api dbg u = Some (spec_api_list shs su))
    /\ (forall input u, usv_list input -> known_c01 None input = 0 -> input_is_file input = false ->
          parse_url dbg hp ho hd None None input = POk u ->
          exists su, spec_basic_url_parse shp input None = BDone su /\ R u su)
    /\ (forall u su s v, R u su ->
          (seven s = true \/ s = QHost \/ (s = QHref /\ href_fits shp shs v /\ input_is_file v = false)) ->
          usv_list v -> known_c07 u s v = 0 ->
          exists u' su', model_set dbg hp ho hd s u v = Some u' /\ spec_step shp s su v = Some su' /\ R u' su').
Print Assumptions C07_statement_nine_all.

(* the hypotheses can be met: on "a://h/p", href := " hTTps:\\u:p@H.x:0443/a/../b?q#f", host := "y.z:8080\w",
   hostname := "q.r", host := "s.t:443" (the default port: removed) *)
Example C07_nine_inhabited :
  let ops := [(QHref, str " hTTps:\\u:p@H.x:0443/a/../b?q#f"); (QHost, str "y.z:8080\w"); (QHostname, str "q.r");
              (QHost, str "s.t:443")] in
  nine_ops ok_shp toy_shs ops
  /\ exists u, parse_url true ok_hp ok_ho toy_hd None None (str "a://h/p") = POk u
       /\ outside_known true ok_hp ok_ho toy_hd u ops
       /\ option_map q_href (model_run true ok_hp ok_ho toy_hd u (firstn 2 ops)) = Some (str "https://u:p@y.z:8080/b?q#f")
       /\ option_map q_href (model_run true ok_hp ok_ho toy_hd u ops) = Some (str "https://u:p@s.t/b?q#f").
Proof.
  cbv zeta. split.
  - cbn [nine_ops]. split; [right; right; split; [reflexivity|]; split; [unfold href_fits; vm_compute; discriminate | vm_compute; reflexivity]|].
    split; [repeat constructor; vm_compute; auto|]. split; [right; left; reflexivity|].
    split; [repeat constructor; vm_compute; auto|]. split; [left; reflexivity|].
    split; [repeat constructor; vm_compute; auto|]. split; [right; left; reflexivity|].
    split; [repeat constructor; vm_compute; auto | exact I].
  - eexists. split; [vm_compute; reflexivity|]. split; [vm_compute; repeat split|]. split; vm_compute; reflexivity.
Qed.

(* the Standard's pathname setter in closed form, for a URL whose path is not opaque and whose scheme is not "file":
   the path start state and the path state run WITH a state override on the value without tab / newline, from an empty
   list of segments - '?' and '#' are ordinary code points there (they come out percent-encoded), one leading '/'
   (or '\' on a special URL) is consumed, an empty value gives one empty segment on a special URL or when the host is
   null and leaves the list empty otherwise (spathO: the path state; sepc: its separators) *)
Theorem C07_pathname_standard_closed : forall shp su v, has_opaque_path su = false ->
  list_eqb (su_scheme su) str_file = false ->
  spec_set shp SetPathname su v = SetTo (pstartO (Whatwg.set_path su (SPList [])) (notnl v)).
Proof. exact spec_pathname_closed. Qed.
Check C07_pathname_standard_closed : forall shp su v, has_opaque_path su = false ->
  list_eqb (su_scheme su) str_file = false ->
  spec_set shp SetPathname su v
  = SetTo (let u := Whatwg.set_path su (SPList []) in let t := notnl v in
           if is_special u then
             match t with
             | c :: r => if sepc true c then Whatwg.set_path u (SPList (spathO true r [] []))
                         else Whatwg.set_path u (SPList (spathO true t [] []))
             | [] => Whatwg.set_path u (SPList [[]])
             end
           else
             match t with
             | c :: r => if c =? 47 then Whatwg.set_path u (SPList (spathO false r [] []))
                         else Whatwg.set_path u (SPList (spathO false t [] []))
             | [] => if host_is_null (su_host u) then Whatwg.set_path u (SPList [[]]) else u
             end).
Print Assumptions C07_pathname_standard_closed.

(* the exclusions of the path equivalence are inside Known_C07, exactly as computed on the raw value:
   class 1 (a drive-letter-shaped piece AND two adjacent dots) contains every value on which a ".." meets a
   drive-letter-shaped last segment of the Standard's list (spath_okO, F-C07-12); class 3 (led by "//", or "//" and a
   dot somewhere) contains every value whose new list of segments starts with an empty segment followed by another one
   (head_empty: the Standard's serializer writes "/." when the host is null, Url::set_path does not, F-C07-2) *)
Theorem C07_pathname_known_classes : forall sp t,
  (has_drive_segment t && has_dotdot t = false -> spath_okO sp t [] [] = true)
  /\ (forall c r, t = c :: r -> sepc sp c = true -> has_drive_segment t && has_dotdot t = false -> spath_okO sp r [] [] = true)
  /\ (starts_with_byte 47 t = false -> contains_double_slash t && has_dot t = false -> head_empty (spathO false t [] []) = false)
  /\ (forall r, t = 47 :: r -> UrlRecord.starts_with s_ss t = false -> contains_double_slash t && has_dot t = false ->
        head_empty (spathO false r [] []) = false).
Proof.
  intros sp t. split; [exact (known1_okO sp t)|]. split; [intros c r ->; exact (known1_okO_tail sp c r)|].
  split; [exact (no_marker t)|]. intros r ->. exact (no_marker_tail r).
Qed.
Print Assumptions C07_pathname_known_classes.

(* pathname on EVERY value, outside classes 1, 3, 4, 5, 9 of Known_C07: url::quirks::set_pathname is the Standard's
   pathname setter on every corrS-related pair - no panic, related again, same ten API strings; for URLs with an
   authority (any host, the empty host included), without host ('/'-led path) and with an opaque path (ignored on both
   sides).  No hypothesis on the host functions.  Url::set_path runs the path start state of parser.rs in the setter
   context; that is the URL-parser context on the value with '?' -> "%3F", '#' -> "%23", which C01's path equivalence
   ties to the Standard's path state. *)
Theorem C07_pathname_equiv : forall dbg hp ho hd shp shs u su v,
  corrS dbg shs u su -> usv_list v -> known_c07 u QPathname v = 0 ->
  exists u' su', model_set dbg hp ho hd QPathname u v = Some u' /\ spec_step shp QPathname su v = Some su'
    /\ corrS dbg shs u' su' /\ model_api dbg u' = Some (spec_api_list shs su').
Proof.
  intros dbg hp ho hd shp shs u su v C Hv Hk.
  exact (step_api dbg hp ho hd shp shs _ (corrS_api dbg shs) QPathname u su v (pathname_step dbg hp ho hd shp shs u su v C Hv Hk)).
Qed.
Check C07_pathname_equiv : forall dbg hp ho hd shp shs u su v,
  corrS dbg shs u su -> usv_list v -> known_c07 u QPathname v = 0 ->
  exists u' su', model_set dbg hp ho hd QPathname u v = Some u' /\ spec_step shp QPathname su v = Some su'
    /\ corrS dbg shs u' su' /\ model_api dbg u' = Some (spec_api_list shs su').
Print Assumptions C07_pathname_equiv.

(* the hypotheses can be met: "http://h/x?q#f" .pathname = "a/../b c?d#e\f" gives "/b%20c%3Fd%23e/f" (dot segments
   resolved, '?' '#' encoded, '\' a separator); "a://h/x" .pathname = "" empties the path; "a:/x" .pathname = "p/./q"
   (no host) *)
Example C07_pathname_inhabited :
  (exists u, parse_url true ok_hp ok_ho toy_hd None None (str "http://h/x?q#f") = POk u
     /\ known_c07 u QPathname (str "a/../b c?d#e\f") = 0
     /\ option_map q_href (model_set true ok_hp ok_ho toy_hd QPathname u (str "a/../b c?d#e\f"))
        = Some (str "http://h/b%20c%3Fd%23e/f?q#f"))
  /\ (exists u, parse_url true ok_hp ok_ho toy_hd None None (str "a://h/x") = POk u
        /\ known_c07 u QPathname [] = 0
        /\ option_map q_href (model_set true ok_hp ok_ho toy_hd QPathname u []) = Some (str "a://h"))
  /\ (exists u, parse_url true ok_hp ok_ho toy_hd None None (str "a:/x") = POk u
        /\ known_c07 u QPathname (str "p/./q") = 0
        /\ option_map q_href (model_set true ok_hp ok_ho toy_hd QPathname u (str "p/./q")) = Some (str "a:/p/q")).
Proof.
  split; [|split]; eexists; (split; [vm_compute; reflexivity|]); split; vm_compute; reflexivity.
Qed.

(* C07_statement's one-step clause for ALL TEN setters: one assignment preserves corrS.
   ten_ok s v: any value for the nine setters other than href; for href a value that fits u32 and whose scheme is not
   "file" *)
Theorem C07_ten_setters_partial : forall dbg hp ho hd shp shs, host_parse_ok hp ho hd shp shs ->
  forall u su s v, corrS dbg shs u su -> ten_ok shp shs s v -> usv_list v -> known_c07 u s v = 0 ->
  exists u' su', model_set dbg hp ho hd s u v = Some u' /\ spec_step shp s su v = Some su' /\ corrS dbg shs u' su'
    /\ model_api dbg u' = Some (spec_api_list shs su').
Proof.
  intros dbg hp ho hd shp shs HP u su s v C H Hv Hk.
  exact (step_api dbg hp ho hd shp shs _ (corrS_api dbg shs) s u su v (ten_step dbg hp ho hd shp shs HP u su s v C H Hv Hk)).
Qed.
Check C07_ten_setters_partial : forall dbg hp ho hd shp shs, host_parse_ok hp ho hd shp shs ->
  forall u su s v, corrS dbg shs u su ->
  ((seven s = true \/ s = QHost \/ (s = QHref /\ href_fits shp shs v /\ input_is_file v = false)) \/ s = QPathname) ->
  usv_list v -> known_c07 u s v = 0 ->
  exists u' su', model_set dbg hp ho hd s u v = Some u' /\ spec_step shp s su v = Some su' /\ corrS dbg shs u' su'
    /\ model_api dbg u' = Some (spec_api_list shs su').
Print Assumptions C07_ten_setters_partial.

(* every setter but href is covered on every value *)
Theorem C07_ten_ok_not_href : forall shp shs s v, s <> QHref -> ten_ok shp shs s v.
Proof.
  intros shp shs s v H. destruct s; try (left; left; reflexivity); try (left; right; left; reflexivity); [contradiction | right; reflexivity].
Qed.
Print Assumptions C07_ten_ok_not_href.

(* ... and so does every history of the ten: the ten API strings agree after every prefix *)
Theorem C07_ten_histories : forall dbg hp ho hd shp shs, host_parse_ok hp ho hd shp shs ->
  forall ops u su, corrS dbg shs u su -> ten_ops shp shs ops -> outside_known dbg hp ho hd u ops ->
  forall n, exists u' su',
    model_run dbg hp ho hd u (firstn n ops) = Some u'
    /\ spec_run shp su (firstn n ops) = Some su'
    /\ corrS dbg shs u' su'
    /\ model_api dbg u' = Some (spec_api_list shs su').
Proof.
  intros dbg hp ho hd shp shs HP.
  exact (usv_histories dbg hp ho hd shp shs (corrS dbg shs) (corrS_api dbg shs) (ten_ok shp shs) (ten_ops shp shs) (fun _ _ _ H => H) (ten_step dbg hp ho hd shp shs HP)).
Qed.
Check C07_ten_histories : forall dbg hp ho hd shp shs, host_parse_ok hp ho hd shp shs ->
  forall ops u su, corrS dbg shs u su -> ten_ops shp shs ops -> outside_known dbg hp ho hd u ops ->
  forall n, exists u' su',
    model_run dbg hp ho hd u (firstn n ops) = Some u'
    /\ spec_run shp su (firstn n ops) = Some su'
    /\ corrS dbg shs u' su'
    /\ model_api dbg u' = Some (spec_api_list shs su').
Print Assumptions C07_ten_histories.

(* parse (outside Known_C01, scheme not "file"), then any history of the ten setters, each step outside Known_C07: the
   ten API strings agree at the start and after every prefix *)
Theorem C07_ten_all : forall dbg hp ho hd shp shs, host_parse_ok hp ho hd shp shs ->
  forall input u ops, usv_list input -> known_c01 None input = 0 -> input_is_file input = false ->
  parse_url dbg hp ho hd None None input = POk u ->
  ten_ops shp shs ops -> outside_known dbg hp ho hd u ops ->
  exists su, spec_basic_url_parse shp input None = BDone su
    /\ model_api dbg u = Some (spec_api_list shs su)
    /\ forall n, exists u' su',
         model_run dbg hp ho hd u (firstn n ops) = Some u'
         /\ spec_run shp su (firstn n ops) = Some su'
         /\ model_api dbg u' = Some (spec_api_list shs su').
Proof.
  intros dbg hp ho hd shp shs HP input u ops Hu Hk Hif Ep.
  apply (usv_api dbg hp ho hd shp shs (corrS dbg shs) (corrS_api dbg shs) (ten_ok shp shs) (ten_ops shp shs) (fun _ _ _ H => H) (ten_step dbg hp ho hd shp shs HP)).
  exact (C07_parse_all_corrS dbg hp ho hd shp shs HP input u Hu Hk Hif Ep).
Qed.
Check C07_ten_all : forall dbg hp ho hd shp shs, host_parse_ok hp ho hd shp shs ->
  forall input u ops, usv_list input -> known_c01 None input = 0 -> input_is_file input = false ->
  parse_url dbg hp ho hd None None input = POk u ->
  ten_ops shp shs ops -> outside_known dbg hp ho hd u ops ->
  exists su, spec_basic_url_parse shp input None = BDone su
    /\ model_api dbg u = Some (spec_api_list shs su)
    /\ forall n, exists u' su',
         model_run dbg hp ho hd u (firstn n ops) = Some u'
         /\ spec_run shp su (firstn n ops) = Some su'
         /\ model_api dbg u' = Some (spec_api_list shs su').
Print Assumptions C07_ten_all.

(* in the shape of C07_statement: ONE abstraction relation (corrS), the parse clause, the one-step clause for ALL TEN
   setters.  Against C07_statement, not covered: inputs and href values whose scheme is "file" (those inside k_file_ok
   are outside Known_C01; C07_statement_ten_all2 has them; host / hostname / pathname on file URLs are class 4 of
   Known_C07); href values whose URL exceeds u32::MAX bytes; host_parse_ok instead of hosts_agree; inputs and values
   that are scalar-value strings. *)
Theorem C07_statement_ten_all : forall dbg hp ho hd shp shs, host_parse_ok hp ho hd shp shs ->
  exists R : url -> spec_url -> Prop,
    (forall u su, R u su -> model_api dbg u = Some (spec_api_list shs su))
    /\ (forall input u, usv_list input -> known_c01 None input = 0 -> input_is_file input = false ->
          parse_url dbg hp ho hd None None input = POk u ->
          exists su, spec_basic_url_parse shp input None = BDone su /\ R u su)
    /\ (forall u su s v, R u su -> ten_ok shp shs s v -> usv_list v -> known_c07 u s v = 0 ->
          exists u' su', model_set dbg hp ho hd s u v = Some u' /\ spec_step shp s su v = Some su' /\ R u' su').
Proof.
  intros dbg hp ho hd shp shs HP. exists (corrS dbg shs). split; [exact (corrS_api dbg shs)|].
  split; [exact (C07_parse_all_corrS dbg hp ho hd shp shs HP) | exact (ten_step dbg hp ho hd shp shs HP)].
Qed.
Check C07_statement_ten_all : forall dbg hp ho hd shp shs, host_parse_ok hp ho hd shp shs ->
  exists R : url -> spec_url -> Prop,
    (forall u su, R u su -> model_api dbg u = Some (spec_api_list shs su))
    /\ (forall input u, usv_list input -> known_c01 None input = 0 -> input_is_file input = false ->
          parse_url dbg hp ho hd None None input = POk u ->
          exists su, spec_basic_url_parse shp input None = BDone su /\ R u su)
    /\ (forall u su s v, R u su ->
          ((seven s = true \/ s = QHost \/ (s = QHref /\ href_fits shp shs v /\ input_is_file v = false)) \/ s = QPathname) ->
          usv_list v -> known_c07 u s v = 0 ->
          exists u' su', model_set dbg hp ho hd s u v = Some u' /\ spec_step shp s su v = Some su' /\ R u' su').
Print Assumptions C07_statement_ten_all.

(* the hypotheses can be met: on "a://h/p", href := " hTTps:\\u:p@H.x:0443/a/../b?q#f", pathname := "x/../y z?#\w",
   host := "y.z:8080\w", pathname := "" (a special URL: one empty segment), protocol := "ws" *)
Example C07_ten_inhabited :
  let ops := [(QHref, str " hTTps:\\u:p@H.x:0443/a/../b?q#f"); (QPathname, str "x/../y z?#\w"); (QHost, str "y.z:8080\w");
              (QPathname, []); (QProtocol, str "ws")] in
  ten_ops ok_shp toy_shs ops
  /\ exists u, parse_url true ok_hp ok_ho toy_hd None None (str "a://h/p") = POk u
       /\ outside_known true ok_hp ok_ho toy_hd u ops
       /\ option_map q_href (model_run true ok_hp ok_ho toy_hd u (firstn 2 ops)) = Some (str "https://u:p@H.x/y%20z%3F%23/w?q#f")
       /\ option_map q_href (model_run true ok_hp ok_ho toy_hd u ops) = Some (str "ws://u:p@y.z:8080/?q#f").
Proof.
  cbv zeta. split.
  - cbn [ten_ops]. split; [left; right; right; split; [reflexivity|]; split; [unfold href_fits; vm_compute; discriminate | vm_compute; reflexivity]|].
    split; [repeat constructor; vm_compute; auto|]. split; [right; reflexivity|].
    split; [repeat constructor; vm_compute; auto|]. split; [left; right; left; reflexivity|].
    split; [repeat constructor; vm_compute; auto|]. split; [right; reflexivity|].
    split; [constructor|]. split; [left; left; reflexivity|].
    split; [repeat constructor; vm_compute; auto | exact I].
  - eexists. split; [vm_compute; reflexivity|]. split; [vm_compute; repeat split|]. split; vm_compute; reflexivity.
Qed.

(* host_fn_ok (the per-string content of host_fns_ok / host_parse_ok: same success, same text, host_disp_ok, empty host
   <-> SEmpty <-> empty string) holds for the REAL host functions - Host::parse with a domain-to-ASCII oracle,
   Host::parse_opaque, Display - against the Standard's host parser with the same oracle and the Standard's host
   serializer under IdnaOK: for Host::parse_opaque on every scalar-value string, for Host::parse on every NON-EMPTY
   scalar-value string.  host_fns_ok quantifies over all strings; the restriction to (non-empty) scalar-value strings -
   all the setters and the parser ever hand to the host functions - is carried through the equivalence proofs in
   C07_hostname_host_equiv_on and C07_statement_on below. *)
Theorem C07_host_fns_real : forall idna, IdnaOK idna -> forall s, usv_list s ->
  host_fn_ok_at host_parse_opaque host_display (spec_host_parser idna) spec_host_serializer true s
  /\ (s <> [] -> host_fn_ok_at (host_parse idna) host_display (spec_host_parser idna) spec_host_serializer false s).
Proof. intros idna OK s Hu. exact (conj (host_fn_real_opaque_out idna (IdnaOK_out idna OK) s Hu) (host_fn_real_special_out idna (IdnaOK_out idna OK) s Hu)). Qed.
Check C07_host_fns_real : forall idna, IdnaOK idna -> forall s, usv_list s ->
  match host_parse_opaque s, host_parsing (spec_host_parser idna) true s with
  | Ok h, Some sh => host_display h = spec_host_serializer sh /\ host_disp_ok host_display h
                     /\ (h = HDomain [] <-> sh = SEmpty) /\ (h = HDomain [] <-> s = [])
  | Err _, None => True
  | _, _ => False
  end
  /\ (s <> [] ->
      match host_parse idna s, host_parsing (spec_host_parser idna) false s with
      | Ok h, Some sh => host_display h = spec_host_serializer sh /\ host_disp_ok host_display h
                         /\ (h = HDomain [] <-> sh = SEmpty) /\ (h = HDomain [] <-> s = [])
      | Err _, None => True
      | _, _ => False
      end).
Print Assumptions C07_host_fns_real.

(* host_fn_ok is exactly this for every string *)
Theorem C07_host_fn_ok_pointwise : forall hf hd shp shs o,
  host_fn_ok hf hd shp shs o <-> forall s, host_fn_ok_at hf hd shp shs o s.
Proof.
  intros hf hd shp shs o.
 split; intros H s; exact (H s).
Qed.
Print Assumptions C07_host_fn_ok_pointwise.

(* the hypotheses can be met: the oracle idna_clean (C09), the string "x.y" *)
Example C07_host_fns_real_inhabited : IdnaOK idna_clean /\ usv_list (str "x.y") /\ str "x.y" <> [].
Proof. split; [exact idna_clean_ok|]. split; [repeat constructor; vm_compute; auto | discriminate]. Qed.

(* the restriction to non-empty strings is needed for Host::parse: on the empty string the answer depends on what the
   oracle says about the empty string, which IdnaOK does not fix - an oracle with idna "" = "a" makes Host::parse("")
   succeed with the domain "a" (url::quirks never hands the empty string to Host::parse: a special URL with an empty
   host text is refused before) *)
Theorem C07_host_fns_special_empty_string : forall idna, idna [] = Some [97] ->
  ~ host_fn_ok (host_parse idna) host_display (spec_host_parser idna) spec_host_serializer false.
Proof.
  intros idna.
  intros E H. specialize (H []). unfold host_parse, host_parsing, spec_host_parser in H. cbn in H. rewrite E in H.
  vm_compute in H. destruct H as (_ & _ & _ & _ & H). specialize (H eq_refl). discriminate H.
Qed.
Print Assumptions C07_host_fns_special_empty_string.

(* the statement relative to the oracle's first clause only *)

(* the host hypothesis restricted to the strings that are ever handed to the host functions: agreement on scalar-value
   strings, non-empty for Host::parse (host_fns_ok_on); with HostWf and the empty host's empty text: host_parse_ok_on.
   host_parse_ok implies it. *)
Theorem C07_host_parse_ok_on_of_all : forall hp ho hd shp shs,
  host_parse_ok hp ho hd shp shs -> host_parse_ok_on hp ho hd shp shs.
Proof. exact host_parse_ok_on_of_all. Qed.
Check C07_host_parse_ok_on_of_all : forall hp ho hd shp shs,
  host_parse_ok hp ho hd shp shs ->
  ((forall s, usv_list s -> s <> [] -> host_fn_ok_at hp hd shp shs false s)
   /\ (forall s, usv_list s -> host_fn_ok_at ho hd shp shs true s))
  /\ HostWf hp ho hd /\ shs SEmpty = [].
Print Assumptions C07_host_parse_ok_on_of_all.

(* hostname and host under the restricted hypothesis: one assignment queries the host functions on ONE string, the
   buffer of the host scan of the value - a sub-string of the value, never empty for Host::parse; replacing the host
   functions by wrappers that answer like them on that buffer and fail elsewhere (they satisfy host_fns_ok) is seen by
   neither side *)
Theorem C07_hostname_host_equiv_on : forall dbg hp ho hd shp shs, host_fns_ok_on hp ho hd shp shs ->
  forall u su s v, corrS dbg shs u su -> (s = QHostname \/ s = QHost) -> usv_list v -> known_c07 u s v = 0 ->
  exists u' su', model_set dbg hp ho hd s u v = Some u' /\ spec_step shp s su v = Some su' /\ corrS dbg shs u' su'.
Proof.
  intros dbg hp ho hd shp shs HO u su s v C [-> | ->] Hv Hk;
    [exact (hostname_step_on dbg hp ho hd shp shs HO u su v C Hv Hk) | exact (host_step_on dbg hp ho hd shp shs HO u su v C Hv Hk)].
Qed.
Print Assumptions C07_hostname_host_equiv_on.

(* C07_statement's three clauses under host_parse_ok_on, all ten setters (all_ok s v: any value for the nine setters
   other than href; for href a value that fits u32 and whose scheme is not "file").  The parse clause: C01's host
   hypothesis is needed on one sub-string of the input; the text of the Standard's host is non-empty because the host is
   a host-parser result on a scalar-value buffer, non-empty when not opaque (Proofs/C07_SpecInvU.v) *)
Theorem C07_statement_on : forall dbg hp ho hd shp shs, host_parse_ok_on hp ho hd shp shs ->
  exists R : url -> spec_url -> Prop,
    (forall u su, R u su -> model_api dbg u = Some (spec_api_list shs su))
    /\ (forall input u, usv_list input -> known_c01 None input = 0 -> input_is_file input = false ->
          parse_url dbg hp ho hd None None input = POk u ->
          exists su, spec_basic_url_parse shp input None = BDone su /\ R u su)
    /\ (forall u su s v, R u su -> all_ok shp shs s v -> usv_list v -> known_c07 u s v = 0 ->
          exists u' su', model_set dbg hp ho hd s u v = Some u' /\ spec_step shp s su v = Some su' /\ R u' su').
Proof. exact statement_all_on. Qed.
Check C07_statement_on : forall dbg hp ho hd shp shs, host_parse_ok_on hp ho hd shp shs ->
  exists R : url -> spec_url -> Prop,
    (forall u su, R u su -> model_api dbg u = Some (spec_api_list shs su))
    /\ (forall input u, usv_list input -> known_c01 None input = 0 -> input_is_file input = false ->
          parse_url dbg hp ho hd None None input = POk u ->
          exists su, spec_basic_url_parse shp input None = BDone su /\ R u su)
    /\ (forall u su s v, R u su -> (s <> QHref \/ (href_fits shp shs v /\ input_is_file v = false)) -> usv_list v ->
          known_c07 u s v = 0 ->
          exists u' su', model_set dbg hp ho hd s u v = Some u' /\ spec_step shp s su v = Some su' /\ R u' su').
Print Assumptions C07_statement_on.

(* the REAL host functions - Host::parse with a domain-to-ASCII oracle, Host::parse_opaque, Display against the
   Standard's host parser over the same oracle and the Standard's host serializer - satisfy host_parse_ok_on as soon as
   every output of the oracle is ASCII outside the deny list (IdnaOut: the first clause of IdnaOK and of IdnaOK2; no
   idempotence) *)
Theorem C07_real_host_parse_ok_on : forall idna, IdnaOut idna ->
  host_parse_ok_on (host_parse idna) host_parse_opaque host_display (spec_host_parser idna) spec_host_serializer.
Proof. exact real_host_parse_ok_on_out. Qed.
Check C07_real_host_parse_ok_on : forall idna,
  (forall bs d, idna bs = Some d -> Forall dom_char_ok d) ->
  host_parse_ok_on (host_parse idna) host_parse_opaque host_display (spec_host_parser idna) spec_host_serializer.
Print Assumptions C07_real_host_parse_ok_on.

(* PARTIAL C07_statement for the linked model (parser + setters + host model of Model/Host.v) against the Standard's
   parser and setters with the Standard's host parser (Spec/WhatwgHostParse.v) over the same oracle, relative to IdnaOut
   only.  Against C07_statement: hosts_agree is replaced by the concrete host functions; not covered: file inputs /
   file href values (C07_statement_model2 has them; host / hostname / pathname on file URLs: class 4), href values
   beyond u32::MAX bytes; inputs and values are scalar-value strings *)
Theorem C07_statement_model : forall dbg idna, IdnaOut idna ->
  exists R : url -> spec_url -> Prop,
    (forall u su, R u su -> model_api dbg u = Some (spec_api_list spec_host_serializer su))
    /\ (forall input u, usv_list input -> known_c01 None input = 0 -> input_is_file input = false ->
          parse_url dbg (host_parse idna) host_parse_opaque host_display None None input = POk u ->
          exists su, spec_basic_url_parse (spec_host_parser idna) input None = BDone su /\ R u su)
    /\ (forall u su s v, R u su -> all_ok (spec_host_parser idna) spec_host_serializer s v -> usv_list v ->
          known_c07 u s v = 0 ->
          exists u' su', model_set dbg (host_parse idna) host_parse_opaque host_display s u v = Some u'
            /\ spec_step (spec_host_parser idna) s su v = Some su' /\ R u' su').
Proof. intros dbg idna OUT. exact (statement_all_on dbg _ _ _ _ _ (real_host_parse_ok_on_out idna OUT)). Qed.
Check C07_statement_model : forall dbg idna, (forall bs d, idna bs = Some d -> Forall dom_char_ok d) ->
  exists R : url -> spec_url -> Prop,
    (forall u su, R u su -> model_api dbg u = Some (spec_api_list spec_host_serializer su))
    /\ (forall input u, usv_list input -> known_c01 None input = 0 -> input_is_file input = false ->
          parse_url dbg (host_parse idna) host_parse_opaque host_display None None input = POk u ->
          exists su, spec_basic_url_parse (spec_host_parser idna) input None = BDone su /\ R u su)
    /\ (forall u su s v, R u su ->
          (s <> QHref \/ (href_fits (spec_host_parser idna) spec_host_serializer v /\ input_is_file v = false)) ->
          usv_list v -> known_c07 u s v = 0 ->
          exists u' su', model_set dbg (host_parse idna) host_parse_opaque host_display s u v = Some u'
            /\ spec_step (spec_host_parser idna) s su v = Some su' /\ R u' su').
Print Assumptions C07_statement_model.

(* ... and its histories: parse, then any history of the ten setters, each step outside Known_C07 *)
Theorem C07_model_histories : forall dbg idna, IdnaOut idna ->
  forall input u ops, usv_list input -> known_c01 None input = 0 -> input_is_file input = false ->
  parse_url dbg (host_parse idna) host_parse_opaque host_display None None input = POk u ->
  all_ops (spec_host_parser idna) spec_host_serializer ops ->
  outside_known dbg (host_parse idna) host_parse_opaque host_display u ops ->
  exists su, spec_basic_url_parse (spec_host_parser idna) input None = BDone su
    /\ model_api dbg u = Some (spec_api_list spec_host_serializer su)
    /\ forall n, exists u' su',
         model_run dbg (host_parse idna) host_parse_opaque host_display u (firstn n ops) = Some u'
         /\ spec_run (spec_host_parser idna) su (firstn n ops) = Some su'
         /\ model_api dbg u' = Some (spec_api_list spec_host_serializer su').
Proof. intros dbg idna OUT. exact (all_from_parse dbg _ _ _ _ _ (real_host_parse_ok_on_out idna OUT)). Qed.
Check C07_model_histories : forall dbg idna, IdnaOut idna ->
  forall input u ops, usv_list input -> known_c01 None input = 0 -> input_is_file input = false ->
  parse_url dbg (host_parse idna) host_parse_opaque host_display None None input = POk u ->
  all_ops (spec_host_parser idna) spec_host_serializer ops ->
  outside_known dbg (host_parse idna) host_parse_opaque host_display u ops ->
  exists su, spec_basic_url_parse (spec_host_parser idna) input None = BDone su
    /\ model_api dbg u = Some (spec_api_list spec_host_serializer su)
    /\ forall n, exists u' su',
         model_run dbg (host_parse idna) host_parse_opaque host_display u (firstn n ops) = Some u'
         /\ spec_run (spec_host_parser idna) su (firstn n ops) = Some su'
         /\ model_api dbg u' = Some (spec_api_list spec_host_serializer su').
Print Assumptions C07_model_histories.

(* the premise holds of an oracle that satisfies IdnaOK2 (the real idna crate up to Known_C10) or IdnaOK; it is met by
   the oracle idna_clean, with which the model computes: "http://ExAmple.com/p" .hostname = "x.Y", .pathname = "a/../b" *)
Example C07_statement_model_inhabited :
  (forall idna, IdnaOK2 idna -> IdnaOut idna) /\ (forall idna, IdnaOK idna -> IdnaOut idna) /\ IdnaOut idna_clean
  /\ exists u, parse_url true (host_parse idna_clean) host_parse_opaque host_display None None (str "http://example.com/p") = POk u
       /\ outside_known true (host_parse idna_clean) host_parse_opaque host_display u [(QHostname, str "x.y"); (QPathname, str "a/../b")]
       /\ option_map q_href (model_run true (host_parse idna_clean) host_parse_opaque host_display u
                               [(QHostname, str "x.y"); (QPathname, str "a/../b")]) = Some (str "http://x.y/b").
Proof.
  split; [exact IdnaOK2_out|]. split; [exact IdnaOK_out|]. split; [exact (IdnaOK_out idna_clean idna_clean_ok)|].
  eexists. split; [vm_compute; reflexivity|]. split; [vm_compute; repeat split | vm_compute; reflexivity].
Qed.

(* file inputs and file href values: the three clauses without the premise input_is_file = false *)

(* every record parse_url returns without a base for an input whose scheme is "file" starts with "file://", has
   scheme_end = 4, username_end = host_start = 7 (no credentials) and no port - for all host functions *)
Theorem C07_parse_file_shaped : forall dbg hp hpo hd ovr input sch rem u,
  parse_scheme CUrlParser (input_new_trim_c0 input) = Some (sch, rem) ->
  st_is_file (scheme_type_of sch) = true ->
  parse_url dbg hp hpo hd ovr None input = POk u ->
  scheme_end u = 4 /\ username_end u = 7 /\ host_start u = 7 /\ port u = None /\ nfirstn 7 (ser u) = s_file_css.
Proof. exact parse_url_file_shaped. Qed.
Check C07_parse_file_shaped : forall dbg hp hpo hd ovr input sch rem u,
  parse_scheme CUrlParser (input_new_trim_c0 input) = Some (sch, rem) ->
  st_is_file (scheme_type_of sch) = true ->
  parse_url dbg hp hpo hd ovr None input = POk u ->
  scheme_end u = 4 /\ username_end u = 7 /\ host_start u = 7 /\ port u = None /\ nfirstn 7 (ser u) = s_file_css.
Print Assumptions C07_parse_file_shaped.

Example C07_parse_file_shaped_inhabited :
  exists sch rem u, parse_scheme CUrlParser (input_new_trim_c0 (str " fIle:\\h.x\a/../b?q#f")) = Some (sch, rem)
    /\ st_is_file (scheme_type_of sch) = true
    /\ parse_url true ok_hp ok_ho toy_hd None None (str " fIle:\\h.x\a/../b?q#f") = POk u
    /\ ser u = str "file://h.x/b?q#f".
Proof. do 3 eexists. split; [vm_compute; reflexivity|]. split; [reflexivity|]. split; vm_compute; reflexivity. Qed.

(* the invariants `sane` of the Standard's record from corr, with the file exception: a record with "//" and without
   host has no credentials, no port and is not special OR is a file record (false of "file:///p" without the second
   alternative); a special record has a host; spec_valid (no credentials / port on a file record or an opaque path) *)
Theorem C07_corr_sane : forall dbg shs u su, corr dbg shs u su ->
  ((has_opaque_path su = true -> su_host su = None /\ su_username su = [] /\ su_password su = [] /\ su_port su = None)
   /\ (su_scheme su = str_file -> su_username su = [] /\ su_password su = [] /\ su_port su = None)) ->
  (has_host u = false -> has_authority_b u = true ->
   username_end u = host_start u /\ port u = None /\ (is_special su = false \/ su_scheme su = str_file)) ->
  (is_special su = true -> opt_is_some (su_host su) = true) ->
  sane su.
Proof. exact corr_sane. Qed.
Print Assumptions C07_corr_sane.

(* the host hypothesis for file inputs: host_parse_ok_on and, on every scalar-value string, the two host parsers agree
   on whether the host is "localhost" (the file host state turns it into the empty host on both sides) *)
Check host_parse_ok_onF : (list N -> result host) -> (list N -> result host) -> (host -> list N) ->
  (bool -> list N -> option spec_host) -> (spec_host -> list N) -> Prop.
Theorem C07_host_parse_ok_onF_unfold : forall hp ho hd shp shs,
  host_parse_ok_onF hp ho hd shp shs <->
  (host_parse_ok_on hp ho hd shp shs
   /\ forall s, usv_list s ->
        match hp s, host_parsing shp false s with
        | Ok h, Some sh => (match h with HDomain d => list_eqb d s_localhost | _ => false end)
                           = (match sh with SDomain d => list_eqb d str_localhost | _ => false end)
        | _, _ => True
        end).
Proof. intros. split; intros H; exact H. Qed.
Print Assumptions C07_host_parse_ok_onF_unfold.

(* the second clause of C07_statement with R := corrS for EVERY scalar-value input outside Known_C01, the inputs whose
   scheme is "file" included (those inside the recogniser k_file_ok: the others are class 1 of Known_C01): from
   C01_statement_all3 through related => corr (C07_EqRel related_corr0) and C07_corr_sane *)
Theorem C07_parse_all_corrS2 : forall dbg hp ho hd shp shs, host_parse_ok_onF hp ho hd shp shs ->
  forall input u, usv_list input -> known_c01 None input = 0 ->
  parse_url dbg hp ho hd None None input = POk u ->
  exists su, spec_basic_url_parse shp input None = BDone su /\ corrS dbg shs u su.
Proof. exact parse_all_corrS_F. Qed.
Check C07_parse_all_corrS2 : forall dbg hp ho hd shp shs, host_parse_ok_onF hp ho hd shp shs ->
  forall input u, usv_list input -> known_c01 None input = 0 ->
  parse_url dbg hp ho hd None None input = POk u ->
  exists su, spec_basic_url_parse shp input None = BDone su /\ corrS dbg shs u su.
Print Assumptions C07_parse_all_corrS2.

(* href on EVERY value outside classes 11-14 of Known_C07 (= outside Known_C01), "file:" values included, up to C01's
   Overflow arm (href_fits: the new URL is not longer than u32::MAX bytes) *)
Theorem C07_href_equiv2 : forall dbg hp ho hd shp shs, host_parse_ok_onF hp ho hd shp shs ->
  forall u su v, corrS dbg shs u su -> usv_list v -> known_c07 u QHref v = 0 -> href_fits shp shs v ->
  exists u' su', model_set dbg hp ho hd QHref u v = Some u' /\ spec_step shp QHref su v = Some su'
    /\ corrS dbg shs u' su'.
Proof. exact href_step_F. Qed.
Check C07_href_equiv2 : forall dbg hp ho hd shp shs, host_parse_ok_onF hp ho hd shp shs ->
  forall u su v, corrS dbg shs u su -> usv_list v -> known_c07 u QHref v = 0 ->
  match spec_basic_url_parse shp v None with
  | BDone su' => nlen (get_href shs su') <= U32_MAX_P
  | _ => True
  end ->
  exists u' su', model_set dbg hp ho hd QHref u v = Some u' /\ spec_step shp QHref su v = Some su'
    /\ corrS dbg shs u' su'.
Print Assumptions C07_href_equiv2.

(* C07_statement's three clauses under host_parse_ok_onF: the parse clause as in C07_statement ("outside Known_C01"), the
   one-step clause for all ten setters and every value (href: up to the Overflow arm); C07_statement_on is the case
   input_is_file = false under the weaker host_parse_ok_on.  Against C07_statement, not covered: href values whose URL
   exceeds u32::MAX bytes; host_parse_ok_onF in place of hosts_agree; inputs and values that are scalar-value strings.  (host / hostname / pathname on file URLs are
   class 4 of Known_C07: an exclusion of the statement itself.) *)
Theorem C07_statement_on2 : forall dbg hp ho hd shp shs, host_parse_ok_onF hp ho hd shp shs ->
  exists R : url -> spec_url -> Prop,
    (forall u su, R u su -> model_api dbg u = Some (spec_api_list shs su))
    /\ (forall input u, usv_list input -> known_c01 None input = 0 ->
          parse_url dbg hp ho hd None None input = POk u ->
          exists su, spec_basic_url_parse shp input None = BDone su /\ R u su)
    /\ (forall u su s v, R u su -> all_okF shp shs s v -> usv_list v -> known_c07 u s v = 0 ->
          exists u' su', model_set dbg hp ho hd s u v = Some u' /\ spec_step shp s su v = Some su' /\ R u' su').
Proof. exact statement_all_onF. Qed.
Check C07_statement_on2 : forall dbg hp ho hd shp shs, host_parse_ok_onF hp ho hd shp shs ->
  exists R : url -> spec_url -> Prop,
    (forall u su, R u su -> model_api dbg u = Some (spec_api_list shs su))
    /\ (forall input u, usv_list input -> known_c01 None input = 0 ->
          parse_url dbg hp ho hd None None input = POk u ->
          exists su, spec_basic_url_parse shp input None = BDone su /\ R u su)
    /\ (forall u su s v, R u su -> (s <> QHref \/ href_fits shp shs v) -> usv_list v -> known_c07 u s v = 0 ->
          exists u' su', model_set dbg hp ho hd s u v = Some u' /\ spec_step shp s su v = Some su' /\ R u' su').
Print Assumptions C07_statement_on2.

(* the same under the hypothesis over all strings: host_parse_ok (of C07_statement_ten_all) + the localhost clause;
   C07_statement_ten_all is the case input_is_file = false, href values not "file", without the localhost clause *)
Theorem C07_statement_ten_all2 : forall dbg hp ho hd shp shs,
  host_parse_ok hp ho hd shp shs -> (forall s, host_local_ok hp shp s) ->
  exists R : url -> spec_url -> Prop,
    (forall u su, R u su -> model_api dbg u = Some (spec_api_list shs su))
    /\ (forall input u, usv_list input -> known_c01 None input = 0 ->
          parse_url dbg hp ho hd None None input = POk u ->
          exists su, spec_basic_url_parse shp input None = BDone su /\ R u su)
    /\ (forall u su s v, R u su -> (s <> QHref \/ href_fits shp shs v) -> usv_list v -> known_c07 u s v = 0 ->
          exists u' su', model_set dbg hp ho hd s u v = Some u' /\ spec_step shp s su v = Some su' /\ R u' su').
Proof.
  intros dbg hp ho hd shp shs H1 H2.
  exact (statement_all_onF dbg hp ho hd shp shs (host_parse_ok_onF_of_all hp ho hd shp shs (conj H1 H2))).
Qed.
Print Assumptions C07_statement_ten_all2.

(* the hypotheses can be met (the functions of C07_host_parse_ok_inhabited), and a history that starts from a file
   input and passes through file href values: "file://h.x/a/../b?q#f", hash := "fr ag", search := "?k=v",
   href := "file://H.y/a/./b", username := "me" and port := "81" (ignored on a file URL), protocol := "http",
   href := "file:///C:/d", protocol := "https" (ignored: a file URL with the empty host) *)
Example C07_statement_ten_all2_inhabited :
  let input := str "file://h.x/a/../b?q#f" in
  let ops := [(QHash, str "fr ag"); (QSearch, str "?k=v"); (QHref, str "file://H.y/a/./b"); (QUsername, str "me");
              (QPort, str "81"); (QProtocol, str "http"); (QHref, str "file:///C:/d"); (QProtocol, str "https")] in
  host_parse_ok ok_hp ok_ho toy_hd ok_shp toy_shs /\ (forall s, host_local_ok ok_hp ok_shp s)
  /\ usv_list input /\ known_c01 None input = 0 /\ input_is_file input = true
  /\ all_opsF ok_shp toy_shs ops
  /\ exists u, parse_url true ok_hp ok_ho toy_hd None None input = POk u
       /\ outside_known true ok_hp ok_ho toy_hd u ops
       /\ option_map q_href (model_run true ok_hp ok_ho toy_hd u (firstn 3 ops)) = Some (str "file://H.y/a/b")
       /\ option_map q_href (model_run true ok_hp ok_ho toy_hd u (firstn 6 ops)) = Some (str "http://H.y/a/b")
       /\ option_map q_href (model_run true ok_hp ok_ho toy_hd u ops) = Some (str "file:///C:/d").
Proof.
  cbv zeta. split; [exact ok_host_parse_ok|]. split; [exact (proj2 ok_host_parse_okF)|].
  split; [repeat constructor; vm_compute; auto|]. split; [vm_compute; reflexivity|]. split; [vm_compute; reflexivity|].
  split.
  - cbn [all_opsF]. unfold all_okF.
    repeat split; try apply usv_str; try (left; discriminate); right; vm_compute; discriminate.
  - eexists. split; [vm_compute; reflexivity|]. split; [vm_compute; repeat split|].
    split; [vm_compute; reflexivity|]. split; vm_compute; reflexivity.
Qed.

(* the REAL host functions satisfy host_parse_ok_onF relative to IdnaOut *)
Theorem C07_real_host_parse_ok_onF : forall idna, IdnaOut idna ->
  host_parse_ok_onF (host_parse idna) host_parse_opaque host_display (spec_host_parser idna) spec_host_serializer.
Proof. exact real_host_parse_ok_onF_out. Qed.
Print Assumptions C07_real_host_parse_ok_onF.

(* PARTIAL C07_statement for the linked model against the Standard with its own host parser, relative to IdnaOut only,
   file inputs and file href values included (C07_statement_model: the same with the premise input_is_file = false).
   Against C07_statement: hosts_agree is replaced by the concrete host functions; not covered: href values beyond
   u32::MAX bytes; inputs and values are scalar-value strings *)
Theorem C07_statement_model2 : forall dbg idna, IdnaOut idna ->
  exists R : url -> spec_url -> Prop,
    (forall u su, R u su -> model_api dbg u = Some (spec_api_list spec_host_serializer su))
    /\ (forall input u, usv_list input -> known_c01 None input = 0 ->
          parse_url dbg (host_parse idna) host_parse_opaque host_display None None input = POk u ->
          exists su, spec_basic_url_parse (spec_host_parser idna) input None = BDone su /\ R u su)
    /\ (forall u su s v, R u su -> all_okF (spec_host_parser idna) spec_host_serializer s v -> usv_list v ->
          known_c07 u s v = 0 ->
          exists u' su', model_set dbg (host_parse idna) host_parse_opaque host_display s u v = Some u'
            /\ spec_step (spec_host_parser idna) s su v = Some su' /\ R u' su').
Proof. intros dbg idna OUT. exact (statement_all_onF dbg _ _ _ _ _ (real_host_parse_ok_onF_out idna OUT)). Qed.
Check C07_statement_model2 : forall dbg idna, (forall bs d, idna bs = Some d -> Forall dom_char_ok d) ->
  exists R : url -> spec_url -> Prop,
    (forall u su, R u su -> model_api dbg u = Some (spec_api_list spec_host_serializer su))
    /\ (forall input u, usv_list input -> known_c01 None input = 0 ->
          parse_url dbg (host_parse idna) host_parse_opaque host_display None None input = POk u ->
          exists su, spec_basic_url_parse (spec_host_parser idna) input None = BDone su /\ R u su)
    /\ (forall u su s v, R u su ->
          (s <> QHref \/ match spec_basic_url_parse (spec_host_parser idna) v None with
                         | BDone su' => nlen (get_href spec_host_serializer su') <= U32_MAX_P
                         | _ => True
                         end) ->
          usv_list v -> known_c07 u s v = 0 ->
          exists u' su', model_set dbg (host_parse idna) host_parse_opaque host_display s u v = Some u'
            /\ spec_step (spec_host_parser idna) s su v = Some su' /\ R u' su').
Print Assumptions C07_statement_model2.

(* ... and its histories: parse ANY input outside Known_C01, then any history of the ten setters, each step outside
   Known_C07.  C07_model_histories is the case input_is_file = false, href values not "file" *)
Theorem C07_model_histories2 : forall dbg idna, IdnaOut idna ->
  forall input u ops, usv_list input -> known_c01 None input = 0 ->
  parse_url dbg (host_parse idna) host_parse_opaque host_display None None input = POk u ->
  all_opsF (spec_host_parser idna) spec_host_serializer ops ->
  outside_known dbg (host_parse idna) host_parse_opaque host_display u ops ->
  exists su, spec_basic_url_parse (spec_host_parser idna) input None = BDone su
    /\ model_api dbg u = Some (spec_api_list spec_host_serializer su)
    /\ forall n, exists u' su',
         model_run dbg (host_parse idna) host_parse_opaque host_display u (firstn n ops) = Some u'
         /\ spec_run (spec_host_parser idna) su (firstn n ops) = Some su'
         /\ model_api dbg u' = Some (spec_api_list spec_host_serializer su').
Proof. intros dbg idna OUT. exact (all_from_parse_F dbg _ _ _ _ _ (real_host_parse_ok_onF_out idna OUT)). Qed.
Check C07_model_histories2 : forall dbg idna, IdnaOut idna ->
  forall input u ops, usv_list input -> known_c01 None input = 0 ->
  parse_url dbg (host_parse idna) host_parse_opaque host_display None None input = POk u ->
  all_opsF (spec_host_parser idna) spec_host_serializer ops ->
  outside_known dbg (host_parse idna) host_parse_opaque host_display u ops ->
  exists su, spec_basic_url_parse (spec_host_parser idna) input None = BDone su
    /\ model_api dbg u = Some (spec_api_list spec_host_serializer su)
    /\ forall n, exists u' su',
         model_run dbg (host_parse idna) host_parse_opaque host_display u (firstn n ops) = Some u'
         /\ spec_run (spec_host_parser idna) su (firstn n ops) = Some su'
         /\ model_api dbg u' = Some (spec_api_list spec_host_serializer su').
Print Assumptions C07_model_histories2.

(* met by the oracle idna_clean on a file start URL: "fIle:\\localhost/y" (the host "localhost" becomes the empty host on
   both sides), search := "a b", href := "file://h.y/a/./b", protocol := "ftp", hash := "x" *)
Example C07_model_histories2_inhabited :
  let input := str "fIle:\\localhost/y" in
  let ops := [(QSearch, str "a b"); (QHref, str "file://h.y/a/./b"); (QProtocol, str "ftp"); (QHash, str "x")] in
  IdnaOut idna_clean /\ usv_list input /\ known_c01 None input = 0 /\ input_is_file input = true
  /\ all_opsF (spec_host_parser idna_clean) spec_host_serializer ops
  /\ exists u, parse_url true (host_parse idna_clean) host_parse_opaque host_display None None input = POk u
       /\ q_href u = str "file:///y"
       /\ outside_known true (host_parse idna_clean) host_parse_opaque host_display u ops
       /\ option_map q_href (model_run true (host_parse idna_clean) host_parse_opaque host_display u (firstn 1 ops))
          = Some (str "file:///y?a%20b")
       /\ option_map q_href (model_run true (host_parse idna_clean) host_parse_opaque host_display u ops)
          = Some (str "ftp://h.y/a/b#x").
Proof.
  cbv zeta. split; [exact (IdnaOK_out idna_clean idna_clean_ok)|].
  split; [repeat constructor; vm_compute; auto|]. split; [vm_compute; reflexivity|]. split; [vm_compute; reflexivity|].
  split.
  - cbn [all_opsF]. unfold all_okF.
    repeat split; try apply usv_str; try (left; discriminate); right; vm_compute; discriminate.
  - eexists. split; [vm_compute; reflexivity|]. split; [vm_compute; reflexivity|]. split; [vm_compute; repeat split|].
    split; vm_compute; reflexivity.
Qed.

(* clauses of the Standard's setters, for all records and values *)

(* search / hash: the empty value sets the component to null; exactly one leading '?' / '#' is
   dropped - on the model and on the Standard's side *)
Theorem C07_search_hash : forall dbg shp u su,
  q_set_search dbg u [] = Setters.set_query dbg u None
  /\ q_set_hash dbg u [] = Setters.set_fragment dbg u None
  /\ spec_set shp SetSearch su [] = SetTo (potentially_strip_trailing_spaces (Whatwg.set_query su None))
  /\ spec_set shp SetHash su [] = SetTo (potentially_strip_trailing_spaces (Whatwg.set_fragment su None))
  /\ (forall x, q_set_search dbg u (63 :: x) = Setters.set_query dbg u (Some x))
  /\ (forall x, q_set_hash dbg u (35 :: x) = Setters.set_fragment dbg u (Some x))
  /\ (forall c x, c <> 63 -> q_set_search dbg u (63 :: c :: x) = q_set_search dbg u (c :: x)
                             /\ spec_set shp SetSearch su (63 :: c :: x) = spec_set shp SetSearch su (c :: x))
  /\ (forall c x, c <> 35 -> q_set_hash dbg u (35 :: c :: x) = q_set_hash dbg u (c :: x)
                             /\ spec_set shp SetHash su (35 :: c :: x) = spec_set shp SetHash su (c :: x))
  /\ (forall x, q_set_search dbg u (63 :: 63 :: x) = Setters.set_query dbg u (Some (63 :: x)))
  /\ (forall x, q_set_hash dbg u (35 :: 35 :: x) = Setters.set_fragment dbg u (Some (35 :: x))).
Proof.
  intros dbg shp u su.
  split; [reflexivity|]. split; [reflexivity|]. split; [reflexivity|]. split; [reflexivity|].
  split; [intros x; reflexivity|]. split; [intros x; reflexivity|].
  split.
  { intros c x Hc. split.
    - rewrite !q_set_search_arg, (setter_arg_strip 63 c x Hc). reflexivity.
    - rewrite !spec_set_search_arg, (setter_arg_strip 63 c x Hc). reflexivity. }
  split.
  { intros c x Hc. split.
    - rewrite !q_set_hash_arg, (setter_arg_strip 35 c x Hc). reflexivity.
    - rewrite !spec_set_hash_arg, (setter_arg_strip 35 c x Hc). reflexivity. }
  split; intros x; reflexivity.
Qed.
Print Assumptions C07_search_hash.

(* ... and what reads back: on every well-formed record the two setters do not panic, keep the
   invariant, leave the other of the two components alone, and the component is null for the empty
   value, otherwise the parser's encoding of the value without its single leading marker *)
Theorem C07_search_hash_get : forall dbg u v, wf_b u = true -> usv_list v ->
  (exists u', q_set_search dbg u v = Some u' /\ wf_b u' = true
     /\ query dbg u' = Some (match setter_arg 63 v with Some x => Some (query_text u x) | None => None end)
     /\ fragment dbg u' = fragment dbg u)
  /\ (exists u', q_set_hash dbg u v = Some u' /\ wf_b u' = true
     /\ fragment dbg u' = Some (match setter_arg 35 v with Some x => Some (tnl_text T_FRAGMENT x) | None => None end)
     /\ query dbg u' = query dbg u).
Proof.
  intros dbg u v W Hv. split.
  - rewrite q_set_search_arg.
    destruct (set_query_ok dbg u (setter_arg 63 v) W (setter_arg_usv 63 v Hv))
      as (u' & Hs & W' & _ & _ & Hf & Hq & _).
    exists u'. auto.
  - rewrite q_set_hash_arg.
    destruct (set_fragment_ok dbg u (setter_arg 35 v) W) as (u' & Hs & W' & _ & _ & Hq & Hf & _).
    exists u'. auto.
Qed.
Print Assumptions C07_search_hash_get.

(* protocol: everything from the first ':' on is ignored *)
Theorem C07_protocol_colon : forall dbg u a b, memb 58 a = false ->
  q_set_protocol dbg u (a ++ 58 :: b) = q_set_protocol dbg u a
  /\ q_set_protocol dbg u a = Setters.set_scheme dbg u a.
Proof.
  intros dbg u a b Ha. unfold q_set_protocol.
  rewrite (protocol_value_cut (a ++ 58 :: b)), (protocol_value_cut a),
    (take_until_colon_app a b Ha), (take_until_colon_none a Ha). split; reflexivity.
Qed.
Print Assumptions C07_protocol_colon.

(* username / password are ignored (Err(()), record unchanged) exactly when the URL "cannot have a
   username/password/port"; port is ignored then, and otherwise only when the value does not start
   with a digit or exceeds 65535 (parse_port fails) *)
Theorem C07_cannot_have : forall dbg u,
  (forall v u', q_set_username dbg u v = Some (u', SErrUnit)
                <-> cannot_have_credentials_or_port u = Some true /\ u' = u)
  /\ (forall v u', q_set_password dbg u v = Some (u', SErrUnit)
                   <-> cannot_have_credentials_or_port u = Some true /\ u' = u)
  /\ (forall v, cannot_have_credentials_or_port u = Some true -> q_set_port dbg u v = Some (u, SErrUnit))
  /\ (forall v u', q_set_port dbg u v = Some (u', SErrUnit) ->
        u' = u /\ (cannot_have_credentials_or_port u = Some true
                   \/ exists sc e, scheme u = Some sc
                        /\ parse_port CSetter (default_port sc) (input_new_no_trim v) = PErr e)).
Proof.
  intros dbg u. split; [|split; [|split]].
  - intros v u'. unfold q_set_username. apply set_username_errunit.
  - intros v u'. unfold q_set_password. apply set_password_errunit.
  - intros v Hc. apply q_set_port_errunit. auto.
  - intros v u' H. apply q_set_port_errunit in H. destruct H as [Hu [Hc|(Hc & sc & e & Hs & Hp)]].
    + auto.
    + split; [exact Hu|]. right. exists sc, e. auto.
Qed.
Print Assumptions C07_cannot_have.

(* the code's test is the Standard's: host null or empty, or scheme "file" *)
Theorem C07_cannot_have_standard : forall u su h sc,
  host_of u = Some h -> scheme u = Some sc -> su_scheme su = sc ->
  host_null_or_empty_corr h (su_host su) ->
  (has_host u = false <-> h = None) ->
  cannot_have_credentials_or_port u = Some (cannot_have_username_password_port su).
Proof.
  intros u su h sc Hh Hs Hsu Hcorr Hhas.
  unfold cannot_have_credentials_or_port, cannot_have_username_password_port.
  assert (list_eqb (su_scheme su) str_file = list_eqb sc s_file) as Hf by (rewrite Hsu; reflexivity).
  destruct (has_host u) eqn:Ehh; cbn [negb].
  - rewrite Hh, Hs. cbn [bindo]. rewrite Hf.
    destruct h as [h'|].
    + unfold host_null_or_empty_corr in Hcorr.
      destruct h' as [[|d0 d]|a|p].
      * rewrite Hcorr. reflexivity.
      * destruct (su_host su) as [[| | | |]|]; try contradiction; reflexivity.
      * destruct (su_host su) as [[| | | |]|]; try contradiction; reflexivity.
      * destruct (su_host su) as [[| | | |]|]; try contradiction; reflexivity.
    + destruct Hhas as [_ Hn]. specialize (Hn eq_refl). discriminate Hn.
  - destruct Hhas as [Hn _]. specialize (Hn eq_refl). subst h.
    unfold host_null_or_empty_corr in Hcorr. destruct Hcorr as [-> | ->]; reflexivity.
Qed.
Print Assumptions C07_cannot_have_standard.

(* protocol: the accept / reject decision of the code, for every record and value *)
Theorem C07_protocol_decision : forall dbg u sch new rem ost ha,
  parse_scheme CSetter (input_new_no_trim sch) = Some (new, rem) ->
  u_scheme_type u = Some ost -> has_authority dbg u = Some ha ->
  (protocol_rejects ost (scheme_type_of new) ha (has_host u) || negb (inp_is_empty rem) = true ->
     Setters.set_scheme dbg u sch = Some (u, SErrUnit))
  /\ (protocol_rejects ost (scheme_type_of new) ha (has_host u) || negb (inp_is_empty rem) = false ->
     forall r, Setters.set_scheme dbg u sch = Some r -> snd r = SOk).
Proof.
  intros dbg u sch new rem ost ha Hp Ho Ha. unfold Setters.set_scheme. rewrite Hp, Ho. cbn [bindo]. rewrite Ha. cbn [bindo].
  unfold protocol_rejects.
  destruct ((st_is_special (scheme_type_of new) && negb (st_is_special ost))
            || (negb (st_is_special (scheme_type_of new)) && st_is_special ost)
            || (st_is_file (scheme_type_of new) && ha)) eqn:E1; cbn [orb].
  - split; [reflexivity|discriminate].
  - rewrite (orb_comm (negb (has_host u) && st_is_special (scheme_type_of new))).
    destruct (negb (inp_is_empty rem) || (negb (has_host u) && st_is_special (scheme_type_of new))) eqn:E2.
    + split; [reflexivity|discriminate].
    + split; [discriminate|]. intros _ [u' st] H. walk H. reflexivity.
Qed.
Print Assumptions C07_protocol_decision.

(* ... is the Standard's rule (special <-> non-special refused; to "file" refused with credentials or
   port; from "file" refused with an empty host), except file -> file (refused by the code, a no-op in
   the Standard) and special-not-file -> file (always refused by the code: F-C07-7, class 6) *)
Theorem C07_protocol_rule : forall ost nst ha hh cp he,
  (ost = STSpecialNotFile -> ha = true /\ hh = true /\ he = false) ->
  (ost = STFile -> ha = true /\ cp = false /\ hh = negb he) ->
  ~ (ost = STSpecialNotFile /\ nst = STFile) ->
  protocol_rejects ost nst ha hh = standard_rejects ost nst cp he || (st_is_file ost && st_is_file nst).
Proof.
  intros ost nst ha hh cp he H1 H2 HK.
  destruct ost.
  - destruct (H2 eq_refl) as (-> & -> & ->). destruct nst, he; reflexivity.
  - destruct (H1 eq_refl) as (-> & -> & ->). destruct nst; try reflexivity.
    + exfalso. apply HK. auto.
    + destruct cp; reflexivity.
  - destruct nst, ha, hh, cp, he; reflexivity.
Qed.
Print Assumptions C07_protocol_rule.

(* an assignment that reports an error leaves the record exactly as it was *)
Theorem C07_atomic_ignore : forall dbg hp ho hd u v u' st, st <> SOk ->
  (q_set_protocol dbg u v = Some (u', st) -> u' = u)
  /\ (q_set_username dbg u v = Some (u', st) -> u' = u)
  /\ (q_set_password dbg u v = Some (u', st) -> u' = u)
  /\ (q_set_host dbg hp ho hd u v = Some (u', st) -> u' = u)
  /\ (q_set_hostname dbg hp ho hd u v = Some (u', st) -> u' = u)
  /\ (q_set_port dbg u v = Some (u', st) -> u' = u).
Proof. exact quirks_setters_ignore_atomically. Qed.
Print Assumptions C07_atomic_ignore.

(* Known_C07: every class contains a divergence *)
Theorem C07_known_refuted :
  refutes 1 "http://h/a" QPathname (str "/C|/..")                               (* F-C07-12 *)
  /\ refutes 2 "http://example.net/path" QHostname (str "example.com:8080")     (* F-C07-1 *)
  /\ refutes 2 "a:/x" QHost (str "::1")                                         (* F-C07-6 *)
  /\ refutes 3 "non-spec:/.//p" QHostname (str "h")                             (* F-C07-2 *)
  /\ refutes 3 "non-spec:/" QPathname (str "//p")                               (* F-C07-2 *)
  /\ refutes 4 "file://monkey/" QHostname (str "?")                             (* F-C07-10 *)
  /\ refutes 4 "file:///unicorn" QPathname (str "//\/")                         (* F-C07-3 *)
  /\ refutes 5 "foo:///some/path" QPathname []                                  (* F-C07-5 *)
  /\ refutes 6 "https://h" QProtocol (str "file")                               (* F-C07-7 *)
  /\ refutes 7 "web+demo://:p@x.y" QHost (str "//")                             (* F-C07-8 *)
  /\ refutes 8 "http://h:81/p" QPort [10]                                       (* F-C07-9 *)
  /\ refutes 9 "ws://u@h/" QPathname [9; 47]                                    (* F-C07-11 *)
  /\ refutes 11 "http://h/" QHref (str "file:////foo")                          (* F-C01-2 *)
  /\ refutes 12 "http://h/" QHref (str "n:/C|/..")                              (* F-C01-9 *)
  /\ refutes 13 "http://h/" QHref (str "n://x.y:8\")                            (* F-C01-8 *)
  /\ refutes 14 "http://h/" QHref (str "blob://:@/").                           (* F-C01-12 *)
Proof.
  repeat split; vm_compute; reflexivity.
Qed.
Print Assumptions C07_known_refuted.

(* Known_C07 is not trivially true: ordinary assignments are outside it *)
Example C07_known_not_everything :
  toy_known (str "http://u:p@h:81/a/b?q#f") QHostname (str "example.com") = 0
  /\ toy_known (str "http://u:p@h:81/a/b?q#f") QPathname (str "/x/../y") = 0
  /\ toy_known (str "a://h/p") QHost (str "x:8080") = 0
  /\ toy_known (str "a:/p") QPathname (str "/a//b") = 0
  /\ toy_known (str "https://h") QProtocol (str "http") = 0
  /\ toy_known (str "file:///x") QSearch (str "?q") = 0.
Proof. vm_compute. repeat split. Qed.
