(* Properties/C16.v - Origins.  Statements of property C16; each is closed by a lemma of Proofs/C16_*.v
   (C16_rt_parsed_real and what follows it by Proofs/C09_RealOrigin.v, Proofs/C09_Long.v).
   Vocabulary (Model/Origin.v, Proofs/C16_Conc.v, Proofs/C16_Origin.v):
     counter_op            FetchAdd | LoadThenStore - what Origin::new_opaque does to COUNTER; the value
                           used by the model is decode_counter_op T_COUNTER_OP, T_COUNTER_OP regenerated
                           from url/src/origin.rs on every run
     config                the shared counter + the threads that have loaded it and not yet stored
     run op s cfg          the schedule s (a list of thread ids; each occurrence = that thread's next
                           ATOMIC step) executed from cfg: final configuration and the identities
                           handed out, in order, each with the thread that received it
     ids_of r              the identities of such a result
     nseq c n              c, c+1, ..., c+n-1
     USIZE_MOD             2^64 (the counter is a usize and wraps; the claim is for fewer creations)
     url_origin dbg hp ho hd c u   url_origin(&u) started with COUNTER = c: OOk origin counter' | OPanic
                           | OFuel (model fuel of the blob recursion exhausted); hp/ho/hd = Host::parse,
                           Host::parse_opaque, Display for Host (arbitrary functions in every theorem)
     five_schemes          [ftp; http; https; ws; wss]
     count58               number of ':' bytes
     plainc c              32 < c < 128 and c is none of : / \ ? # @ [ ]   (Proofs/C16_RT.v)
     plain_text t          t <> [] and every byte of t satisfies plainc (the texts of domains and IPv4 hosts)
     v6c c                 32 < c < 128 and c is none of / \ ? # @ [ ]   (':' allowed; Proofs/C16_RT6.v)
     bracket_text t        t = "[" body "]" with every byte of body satisfying v6c (the texts of IPv6 hosts)
     url_parse dbg hp ho hd p   Url::parse(p): the parser model (Model/Parser.v) without base and without
                           encoding override, on the chars() of the byte string p
     Host.host_parse idna, Host.host_display   the host MODEL (Model/Host.v, property C09), idna arbitrary
     C09_Host.IdnaOK idna  the hypothesis of C09 on the IDNA function: outputs are ASCII outside the deny list
                           host.rs passes, are fixed points, and dotted-decimal text is mapped to itself
     freec c               32 < c and c is none of : / \ ? # @ [ ]   (plainc without the bound 128; Proofs/C16_RTU.v)
     tuple_serialization s t p   s "://" t [":" decimal p], the port written unless it is the default of s (Model/Origin.v)
     origin_tu A cfg d     UTF-8 of the text of idna::domain_to_unicode (ToUnicode model) on d   (Proofs/C16_RTUModel.v)
     host_known_free A cfg h     a domain h is outside Known_C12 and Known_C10_long; True for IPv4 / IPv6 hosts
     res_clean u, origin_clean dbg idna u   Proofs/C09_RunClean.v, Proofs/C09_RealOrigin.v; explained at C16_rt_parsed_real
   Strings are lists of UTF-8 bytes. *)
From RU Require Import Base.Prelude Base.Utf8 Gen.Tables Model.HostT Model.UrlRecord Model.Parser Model.Origin
  Proofs.C16_Conc Proofs.C16_Origin Proofs.C16_RT Proofs.C16_Example Proofs.C16_Colons Proofs.C16_RT6
  Proofs.C16_RT6Model Proofs.C16_RTParsed.
From RU Require Model.Host Proofs.C09_Host.

(* Origin::new_opaque increments COUNTER with one atomic fetch_add (proved against the table T_COUNTER_OP
   regenerated on every run; a load/store pair in origin.rs makes this fail) *)
Theorem C16_model_uses_fetch_add : decode_counter_op T_COUNTER_OP = FetchAdd.
Proof. exact counter_table_ok. Qed.
Check C16_model_uses_fetch_add : decode_counter_op T_COUNTER_OP = FetchAdd.
Print Assumptions C16_model_uses_fetch_add.

(* the regenerated scheme dispatch of url_origin: tuple arm = the five schemes, recursing arm = blob *)
Theorem C16_dispatch_tables : forall s,
  str_mem s T_ORIGIN_TUPLE_SCHEMES = str_mem s [s_ftp; s_http; s_https; s_ws; s_wss]
  /\ str_mem s T_ORIGIN_BLOB_SCHEMES = list_eqb s s_blob.
Proof. intros s. split; [exact (tuple_table s)|exact (blob_table s)]. Qed.
Check C16_dispatch_tables : forall s,
  str_mem s T_ORIGIN_TUPLE_SCHEMES = str_mem s [s_ftp; s_http; s_https; s_ws; s_wss]
  /\ str_mem s T_ORIGIN_BLOB_SCHEMES = list_eqb s s_blob.
Print Assumptions C16_dispatch_tables.

(* opaque identities under concurrency: for EVERY schedule - any thread ids, any interleaving, any
   length - of atomic fetch_add steps from any configuration, as long as the counter does not wrap:
   the k-th step hands counter+k to the thread scheduled k-th; the identities are pairwise distinct,
   none is below the starting value, and none handed out in a later segment of the schedule repeats
   one handed out earlier *)
Theorem C16_opaque :
  forall (s : schedule) (cfg : config),
    counter cfg + N.of_nat (length s) < USIZE_MOD ->
    let r := run FetchAdd s cfg in
    snd r = combine s (nseq (counter cfg) (length s))
    /\ NoDup (ids_of r)
    /\ Forall (fun i => counter cfg <= i) (ids_of r)
    /\ counter (fst r) = counter cfg + N.of_nat (length s)
    /\ (forall s1 s2, s = s1 ++ s2 ->
        forall a b, In a (ids_of (run FetchAdd s1 cfg)) ->
                    In b (ids_of (run FetchAdd s2 (fst (run FetchAdd s1 cfg)))) -> a < b).
Proof. exact opaque_unique. Qed.
Check C16_opaque :
  forall (s : schedule) (cfg : config),
    counter cfg + N.of_nat (length s) < USIZE_MOD ->
    let r := run FetchAdd s cfg in
    snd r = combine s (nseq (counter cfg) (length s))
    /\ NoDup (ids_of r)
    /\ Forall (fun i => counter cfg <= i) (ids_of r)
    /\ counter (fst r) = counter cfg + N.of_nat (length s)
    /\ (forall s1 s2, s = s1 ++ s2 ->
        forall a b, In a (ids_of (run FetchAdd s1 cfg)) ->
                    In b (ids_of (run FetchAdd s2 (fst (run FetchAdd s1 cfg)))) -> a < b).
Print Assumptions C16_opaque.

(* two witnesses (the statement is an existence statement, not a negation).  First conjunct: with a load
   followed by a store instead of fetch_add there EXISTS a two-thread schedule in which both threads receive
   the same identity, so C16_opaque with LoadThenStore for FetchAdd is false (NoDup fails); this is what
   C16_model_uses_fetch_add guards against.  Second conjunct: the no-wrap premise of C16_opaque cannot be
   dropped - from 2^64-1 the second creation receives 0, below the starting value *)
Theorem C16_race_refuted :
  (exists s : schedule,
     Forall (fun t => t = 0 \/ t = 1) s
     /\ (exists i, snd (run LoadThenStore s (mkConfig 0 [])) = [(0, i); (1, i)])
     /\ ~ NoDup (ids_of (run LoadThenStore s (mkConfig 0 []))))
  /\ ids_of (run FetchAdd [0; 0] (mkConfig (USIZE_MOD - 1) [])) = [USIZE_MOD - 1; 0].
Proof. split; [exact race|exact wrap_witness]. Qed.
Check C16_race_refuted :
  (exists s : schedule,
     Forall (fun t => t = 0 \/ t = 1) s
     /\ (exists i, snd (run LoadThenStore s (mkConfig 0 [])) = [(0, i); (1, i)])
     /\ ~ NoDup (ids_of (run LoadThenStore s (mkConfig 0 []))))
  /\ ids_of (run FetchAdd [0; 0] (mkConfig (USIZE_MOD - 1) [])) = [USIZE_MOD - 1; 0].
Print Assumptions C16_race_refuted.

(* tuple origins: for URLs u, v (any records, any counters, any fuel) that are not themselves blob URLs
   and whose origins are tuples, the origins are equal exactly when scheme, host and effective port
   (port_or_known_default) are equal; derived == is this equality.  (For a blob URL C16_blob gives the
   origin of the embedded URL.) *)
Theorem C16_tuple : forall dbg hp ho hd f1 f2 c1 c2 u v o1 o2 c1' c2',
  scheme u <> Some s_blob -> scheme v <> Some s_blob ->
  url_origin_fuel dbg hp ho hd f1 c1 u = OOk o1 c1' ->
  url_origin_fuel dbg hp ho hd f2 c2 v = OOk o2 c2' ->
  is_tuple o1 = true -> is_tuple o2 = true ->
  (o1 = o2 <-> (scheme u = scheme v /\ host_of u = host_of v
                /\ port_or_known_default u = port_or_known_default v))
  /\ (origin_eqb o1 o2 = true <-> o1 = o2).
Proof. exact tuple_equality. Qed.
Check C16_tuple : forall dbg hp ho hd f1 f2 c1 c2 u v o1 o2 c1' c2',
  scheme u <> Some s_blob -> scheme v <> Some s_blob ->
  url_origin_fuel dbg hp ho hd f1 c1 u = OOk o1 c1' ->
  url_origin_fuel dbg hp ho hd f2 c2 v = OOk o2 c2' ->
  is_tuple o1 = true -> is_tuple o2 = true ->
  (o1 = o2 <-> (scheme u = scheme v /\ host_of u = host_of v
                /\ port_or_known_default u = port_or_known_default v))
  /\ (origin_eqb o1 o2 = true <-> o1 = o2).
Print Assumptions C16_tuple.

(* which URLs get a tuple: a non-blob URL's origin is a tuple exactly for ftp/http/https/ws/wss; for
   these schemes, if the URL has a host (the explicit premise host_of u = Some (Some h); parse results
   with a special non-file scheme always have one) neither unwrap() in url_origin can fail - the
   effective port exists - and the origin is (scheme, host, effective port), the counter untouched;
   without a host url.host().unwrap() panics *)
Theorem C16_tuple_schemes : forall dbg hp ho hd f c u s,
  scheme u = Some s ->
  (s <> s_blob -> forall o c', url_origin_fuel dbg hp ho hd f c u = OOk o c' ->
     (is_tuple o = true <-> In s [s_ftp; s_http; s_https; s_ws; s_wss]))
  /\ (In s [s_ftp; s_http; s_https; s_ws; s_wss] ->
      (forall h, host_of u = Some (Some h) ->
         exists p, port_or_known_default u = Some (Some p)
                   /\ url_origin_fuel dbg hp ho hd f c u = OOk (Tuple s h p) c)
      /\ (host_of u = Some None -> url_origin_fuel dbg hp ho hd f c u = OPanic)).
Proof.
  intros dbg hp ho hd f c u s Hs. split.
  - intros Hnb o c' H. exact (kind_by_scheme dbg hp ho hd f c u s o c' Hs Hnb H).
  - intros H5. split.
    + intros h Hh. exact (tuple_arm dbg hp ho hd f c u s h Hs H5 Hh).
    + intros Hh. exact (tuple_arm_no_host dbg hp ho hd f c u s Hs H5 Hh).
Qed.
Check C16_tuple_schemes : forall dbg hp ho hd f c u s,
  scheme u = Some s ->
  (s <> s_blob -> forall o c', url_origin_fuel dbg hp ho hd f c u = OOk o c' ->
     (is_tuple o = true <-> In s [s_ftp; s_http; s_https; s_ws; s_wss]))
  /\ (In s [s_ftp; s_http; s_https; s_ws; s_wss] ->
      (forall h, host_of u = Some (Some h) ->
         exists p, port_or_known_default u = Some (Some p)
                   /\ url_origin_fuel dbg hp ho hd f c u = OOk (Tuple s h p) c)
      /\ (host_of u = Some None -> url_origin_fuel dbg hp ho hd f c u = OPanic)).
Print Assumptions C16_tuple_schemes.

(* blob: the origin of a blob URL is the origin of the URL its path parses to (same origin, same
   counter afterwards) when the path parses, a fresh opaque origin when it does not.  The two `<> OFuel`
   hypotheses always hold (C16_fuel); C16_blob_total below is this statement without them and implies it *)
Theorem C16_blob : forall dbg hp ho hd c u p,
  scheme u = Some s_blob -> path u = Some p ->
  match url_parse dbg hp ho hd p with
  | POk v => url_origin dbg hp ho hd c u <> OFuel -> url_origin dbg hp ho hd c v <> OFuel ->
             url_origin dbg hp ho hd c u = url_origin dbg hp ho hd c v
  | PErr _ => url_origin dbg hp ho hd c u = new_opaque c
  | PPanic => url_origin dbg hp ho hd c u = OPanic
  end.
Proof. exact blob_origin. Qed.
Check C16_blob : forall dbg hp ho hd c u p,
  scheme u = Some s_blob -> path u = Some p ->
  match url_parse dbg hp ho hd p with
  | POk v => url_origin dbg hp ho hd c u <> OFuel -> url_origin dbg hp ho hd c v <> OFuel ->
             url_origin dbg hp ho hd c u = url_origin dbg hp ho hd c v
  | PErr _ => url_origin dbg hp ho hd c u = new_opaque c
  | PPanic => url_origin dbg hp ho hd c u = OPanic
  end.
Print Assumptions C16_blob.

(* the fuel of the blob recursion (length of the serialization) never runs out: for every record,
   whatever the host functions.  Proved as C16_fuel below. *)
Definition C16_fuel_statement : Prop :=
  forall dbg hp ho hd c u, url_origin dbg hp ho hd c u <> OFuel.
(* C16_fuel_partial: C16_fuel under the extra hypothesis that a URL with scheme blob parsed from a text has a
   path with fewer ':' than that text (each level of nesting consumes the ':' of a "blob:" prefix; nothing adds
   a ':' to the path of a blob URL).  The hypothesis is the instance s = blob of C16_parse_colons, so C16_fuel
   has no hypothesis and implies this theorem; what this one shows is the measure of the recursion: the number
   of ':'.  The length of the inner serialization is NOT a measure: percent-encoding can make it longer than
   the outer one (t_blob_blob_quotes in C16_premises_hold). *)
Theorem C16_fuel_partial : forall dbg hp ho hd,
  (forall p v p', url_parse dbg hp ho hd p = POk v -> scheme v = Some s_blob -> path v = Some p' ->
                  (count58 p' < count58 p)%nat) ->
  forall c u, url_origin dbg hp ho hd c u <> OFuel.
Proof. exact fuel_never_out. Qed.
Check C16_fuel_partial : forall dbg hp ho hd,
  (forall p v p', url_parse dbg hp ho hd p = POk v -> scheme v = Some s_blob -> path v = Some p' ->
                  (count58 p' < count58 p)%nat) ->
  forall c u, url_origin dbg hp ho hd c u <> OFuel.
Print Assumptions C16_fuel_partial.

(* the hypothesis of C16_fuel_partial (and more: every scheme but file), for the parser model and arbitrary host
   functions: Url::parse(p) = Ok(v), v not a file URL  ==>  the path of v has fewer ':' than p.  (chars() makes no ':' out of other bytes; the scheme state
   consumes one ':'; percent-encoding writes '%' and hex digits or copies; the path states append encoded input
   and '/' or cut behind path_start; the "/." marker and the host text - whatever Display writes - are in front
   of the path.)  With it comes: the scheme slice of the result is the scheme that was read, for every scheme
   type - which is how "scheme v = blob" selects the non-special branch. *)
Theorem C16_parse_colons : forall dbg hp ho hd p v s p',
  url_parse dbg hp ho hd p = POk v -> scheme v = Some s -> s <> s_file -> path v = Some p' ->
  (count58 p' < count58 p)%nat.
Proof. intros dbg hp ho hd p v s p' Hv Hs Hn Hp. exact (url_parse_colons dbg hp ho hd p v Hv s Hs Hn p' Hp). Qed.
Check C16_parse_colons : forall dbg hp ho hd p v s p',
  url_parse dbg hp ho hd p = POk v -> scheme v = Some s -> s <> s_file -> path v = Some p' ->
  (count58 p' < count58 p)%nat.
Print Assumptions C16_parse_colons.

(* the exclusion of file URLs in C16_parse_colons is necessary.  The statement exhibits a witness: the drive-letter
   quirk turns '|' into ':' - file:/C|/ (one ':') parses to a URL with the path /C:/ (one ':'), so the strict
   inequality fails.  Not a defect (the Standard does the same); file URLs never reach the blob recursion. *)
Theorem C16_parse_colons_file_refuted :
  exists v, toy_parse t_file_c_bar = POk v /\ scheme v = Some s_file /\ path v = Some t_path_c_colon
            /\ ~ (count58 t_path_c_colon < count58 t_file_c_bar)%nat.
Proof. exact colons_file_witness. Qed.
Check C16_parse_colons_file_refuted :
  exists v, toy_parse t_file_c_bar = POk v /\ scheme v = Some s_file /\ path v = Some t_path_c_colon
            /\ ~ (count58 t_path_c_colon < count58 t_file_c_bar)%nat.
Print Assumptions C16_parse_colons_file_refuted.

(* C16_fuel: the fuel never runs out - for every record, every counter, whatever the host functions
   (C16_fuel_partial with its hypothesis supplied by C16_parse_colons) *)
Theorem C16_fuel : C16_fuel_statement.
Proof. exact fuel_always_enough. Qed.
Check C16_fuel : forall dbg hp ho hd c u, url_origin dbg hp ho hd c u <> OFuel.
Print Assumptions C16_fuel.

(* C16_blob_total: C16_blob without the two `<> OFuel` hypotheses: the origin of a blob URL whose path parses
   IS the origin of the parsed URL, at the same counter *)
Theorem C16_blob_total : forall dbg hp ho hd c u p,
  scheme u = Some s_blob -> path u = Some p ->
  match url_parse dbg hp ho hd p with
  | POk v => url_origin dbg hp ho hd c u = url_origin dbg hp ho hd c v
  | PErr _ => url_origin dbg hp ho hd c u = new_opaque c
  | PPanic => url_origin dbg hp ho hd c u = OPanic
  end.
Proof. exact blob_origin_total. Qed.
Check C16_blob_total : forall dbg hp ho hd c u p,
  scheme u = Some s_blob -> path u = Some p ->
  match url_parse dbg hp ho hd p with
  | POk v => url_origin dbg hp ho hd c u = url_origin dbg hp ho hd c v
  | PErr _ => url_origin dbg hp ho hd c u = new_opaque c
  | PPanic => url_origin dbg hp ho hd c u = OPanic
  end.
Print Assumptions C16_blob_total.

(* opaque kinds: file URLs, URLs whose scheme is neither blob nor one of the five, and blob URLs whose
   path does not parse get Origin::new_opaque(); with the regenerated fetch_add that is the identity
   `counter` and the counter incremented; an opaque origin is equal to nothing but itself (so, with
   C16_opaque / C16_sequence, to no other origin ever created) *)
Theorem C16_opaque_kinds : forall dbg hp ho hd c u s,
  scheme u = Some s ->
  ((s = s_file \/ (s <> s_blob /\ ~ In s [s_ftp; s_http; s_https; s_ws; s_wss])) ->
     url_origin dbg hp ho hd c u = new_opaque c)
  /\ (s = s_blob -> forall p e, path u = Some p -> url_parse dbg hp ho hd p = PErr e ->
        url_origin dbg hp ho hd c u = new_opaque c)
  /\ (c + 1 < USIZE_MOD -> new_opaque c = OOk (Opaque c) (c + 1))
  /\ (forall i o, origin_eqb (Opaque i) o = true <-> o = Opaque i).
Proof. exact opaque_kinds. Qed.
Check C16_opaque_kinds : forall dbg hp ho hd c u s,
  scheme u = Some s ->
  ((s = s_file \/ (s <> s_blob /\ ~ In s [s_ftp; s_http; s_https; s_ws; s_wss])) ->
     url_origin dbg hp ho hd c u = new_opaque c)
  /\ (s = s_blob -> forall p e, path u = Some p -> url_parse dbg hp ho hd p = PErr e ->
        url_origin dbg hp ho hd c u = new_opaque c)
  /\ (c + 1 < USIZE_MOD -> new_opaque c = OOk (Opaque c) (c + 1))
  /\ (forall i o, origin_eqb (Opaque i) o = true <-> o = Opaque i).
Print Assumptions C16_opaque_kinds.

(* one thread computing the origins of any list of URLs one after the other: all opaque identities it
   receives are pairwise distinct and none is below the starting counter *)
Theorem C16_sequence : forall dbg hp ho hd us c,
  c + N.of_nat (length us) < USIZE_MOD ->
  let rs := origins_of dbg hp ho hd c us in
  NoDup (opaque_ids rs) /\ Forall (fun i => c <= i) (opaque_ids rs).
Proof. exact sequence_ids. Qed.
Check C16_sequence : forall dbg hp ho hd us c,
  c + N.of_nat (length us) < USIZE_MOD ->
  let rs := origins_of dbg hp ho hd c us in
  NoDup (opaque_ids rs) /\ Forall (fun i => c <= i) (opaque_ids rs).
Print Assumptions C16_sequence.

(* round trip, for ARBITRARY host functions hp, hd, tu: for the origin o of every parse result, if o is a tuple then its ASCII
   and its Unicode serialization parse to URLs whose origin is o - given that the host functions are
   mutually inverse on the host of o (C09_display_rt) and that the ToUnicode form parses back to the
   ASCII host (C12).  In this generality the statement is false: C16_rt_refuted.  What holds instead:
   C16_rt_plain, C16_rt_bracket, C16_rt_parsed (arbitrary host functions, extra premises on the host text) and
   C16_rt (the host functions of the models). *)
Definition C16_rt_statement : Prop :=
  forall dbg hp ho hd tu input u c o c',
    url_parse dbg hp ho hd input = POk u ->
    url_origin dbg hp ho hd c u = OOk o c' -> is_tuple o = true ->
    (forall s h p, o = Tuple s h p ->
       hp (str_chars (host_fmt hd h)) = Ok h
       /\ (forall d, h = HDomain d -> hp (str_chars (tu d)) = Ok h)) ->
    (exists w, url_parse dbg hp ho hd (ascii_serialization hd o) = POk w
               /\ url_origin dbg hp ho hd c' w = OOk o c')
    /\ (exists w, url_parse dbg hp ho hd (unicode_serialization hd tu o) = POk w
                  /\ url_origin dbg hp ho hd c' w = OOk o c').
(* C16_rt_partial: the shape of the two serializations (Proofs/C16_Origin.v serialization_shape); nothing about
   parsing them back.  Both are scheme "://" host [":" port], the port written exactly when it is not the
   scheme's default, "null" for opaque origins - for all origins.  That these texts parse back to the origin
   is C16_rt_plain (domains and IPv4 hosts) and C16_rt_bracket (IPv6 hosts) below. *)
Theorem C16_rt_partial : forall hd tu s h p,
  ascii_serialization hd (Tuple s h p)
  = s ++ s_css ++ host_fmt hd h ++ (if opt_eqb (default_port s) (Some p) then [] else 58 :: decimal p)
  /\ unicode_serialization hd tu (Tuple s h p)
     = s ++ s_css ++ host_fmt hd (match h with HDomain d => HDomain (tu d) | _ => h end)
         ++ (if opt_eqb (default_port s) (Some p) then [] else 58 :: decimal p)
  /\ (default_port s = Some p -> ascii_serialization hd (Tuple s h p) = s ++ s_css ++ host_fmt hd h)
  /\ (default_port s <> Some p ->
      ascii_serialization hd (Tuple s h p) = s ++ s_css ++ host_fmt hd h ++ 58 :: decimal p)
  /\ (forall i, ascii_serialization hd (Opaque i) = s_null /\ unicode_serialization hd tu (Opaque i) = s_null).
Proof. exact serialization_shape. Qed.
Check C16_rt_partial : forall hd tu s h p,
  ascii_serialization hd (Tuple s h p)
  = s ++ s_css ++ host_fmt hd h ++ (if opt_eqb (default_port s) (Some p) then [] else 58 :: decimal p)
  /\ unicode_serialization hd tu (Tuple s h p)
     = s ++ s_css ++ host_fmt hd (match h with HDomain d => HDomain (tu d) | _ => h end)
         ++ (if opt_eqb (default_port s) (Some p) then [] else 58 :: decimal p)
  /\ (default_port s = Some p -> ascii_serialization hd (Tuple s h p) = s ++ s_css ++ host_fmt hd h)
  /\ (default_port s <> Some p ->
      ascii_serialization hd (Tuple s h p) = s ++ s_css ++ host_fmt hd h ++ 58 :: decimal p)
  /\ (forall i, ascii_serialization hd (Opaque i) = s_null /\ unicode_serialization hd tu (Opaque i) = s_null).
Print Assumptions C16_rt_partial.

(* the round trip for every tuple origin (s, h, p) whose host text is plain (printable ASCII
   without : / \ ? # @ [ ] - all domains and IPv4 addresses, not IPv6) by symbolic execution of the parser
   model on  scheme "://" host [":" port]: given that Display and Host::parse are inverse on this host (C09)
   and the text is shorter than 2^32, the ASCII serialization parses to a URL whose origin is (s, h, p) again;
   the same for the Unicode serialization when the ToUnicode form of the domain is plain ASCII as well and
   parses back to h (C12).  Every port below 2^16 is read back from its decimal text (finite sweep).
   Not covered here: IPv6 hosts (C16_rt_bracket, C16_rt_ipv6_model below) and non-ASCII Unicode forms. *)
Theorem C16_rt_plain : forall dbg hp ho hd tu s h p,
  In s [s_ftp; s_http; s_https; s_ws; s_wss] -> p <= 65535 ->
  plain_text (host_fmt hd h) -> hd h = host_fmt hd h -> hp (host_fmt hd h) = Ok h ->
  nlen (ascii_serialization hd (Tuple s h p)) < U32_MAX_P ->
  (exists w, url_parse dbg hp ho hd (ascii_serialization hd (Tuple s h p)) = POk w
             /\ forall f k, url_origin_fuel dbg hp ho hd f k w = OOk (Tuple s h p) k)
  /\ (forall d, h = HDomain d -> plain_text (tu d) -> hp (tu d) = Ok h ->
      exists w, url_parse dbg hp ho hd (unicode_serialization hd tu (Tuple s h p)) = POk w
                /\ forall f k, url_origin_fuel dbg hp ho hd f k w = OOk (Tuple s h p) k).
Proof. exact rt_plain. Qed.
Check C16_rt_plain : forall dbg hp ho hd tu s h p,
  In s [s_ftp; s_http; s_https; s_ws; s_wss] -> p <= 65535 ->
  plain_text (host_fmt hd h) -> hd h = host_fmt hd h -> hp (host_fmt hd h) = Ok h ->
  nlen (ascii_serialization hd (Tuple s h p)) < U32_MAX_P ->
  (exists w, url_parse dbg hp ho hd (ascii_serialization hd (Tuple s h p)) = POk w
             /\ forall f k, url_origin_fuel dbg hp ho hd f k w = OOk (Tuple s h p) k)
  /\ (forall d, h = HDomain d -> plain_text (tu d) -> hp (tu d) = Ok h ->
      exists w, url_parse dbg hp ho hd (unicode_serialization hd tu (Tuple s h p)) = POk w
                /\ forall f k, url_origin_fuel dbg hp ho hd f k w = OOk (Tuple s h p) k).
Print Assumptions C16_rt_plain.

(* C16_rt_statement in its generality - ARBITRARY host functions that are merely inverse on the host of the
   origin - is FALSE: if Host::parse may return a domain whose text contains '/', the serialization is cut at
   that '/' when parsed again.  Witness (stand-in functions: "x", "a/b" -> Domain("a/b"); "a" -> Domain("z")):
   https://x/ has the origin (https, a/b, 443), serialized https://a/b, which parses to a URL with the origin
   (https, z, 443).  The real Host::parse never returns such a domain (C09_domain): a fact about the statement,
   not a defect of the crate.  The premises plain_text / bracket_text of C16_rt_plain / C16_rt_bracket are what
   excludes it; they hold for everything the host model returns. *)
Theorem C16_rt_refuted : ~ C16_rt_statement.
Proof. exact rt_full_refuted. Qed.
Check C16_rt_refuted : ~ C16_rt_statement.
Print Assumptions C16_rt_refuted.

(* the round trip for every tuple origin (s, h, p) whose host text is bracketed: "[" body "]",
   body printable ASCII without / \ ? # @ [ ] - ':' allowed - i.e. IPv6 hosts: inside the brackets the host state
   of the parser does not stop at ':'.  Same premises as C16_rt_plain (Display and Host::parse inverse on this
   host, C09; text shorter than 2^32).  For a host that is not a domain the Unicode serialization is the ASCII one. *)
Theorem C16_rt_bracket : forall dbg hp ho hd tu s h p,
  In s [s_ftp; s_http; s_https; s_ws; s_wss] -> p <= 65535 ->
  bracket_text (host_fmt hd h) -> hd h = host_fmt hd h -> hp (host_fmt hd h) = Ok h ->
  nlen (ascii_serialization hd (Tuple s h p)) < U32_MAX_P ->
  (exists w, url_parse dbg hp ho hd (ascii_serialization hd (Tuple s h p)) = POk w
             /\ forall f k, url_origin_fuel dbg hp ho hd f k w = OOk (Tuple s h p) k)
  /\ ((forall d, h <> HDomain d) ->
      exists w, url_parse dbg hp ho hd (unicode_serialization hd tu (Tuple s h p)) = POk w
                /\ forall f k, url_origin_fuel dbg hp ho hd f k w = OOk (Tuple s h p) k).
Proof. exact rt_bracket. Qed.
Check C16_rt_bracket : forall dbg hp ho hd tu s h p,
  In s [s_ftp; s_http; s_https; s_ws; s_wss] -> p <= 65535 ->
  bracket_text (host_fmt hd h) -> hd h = host_fmt hd h -> hp (host_fmt hd h) = Ok h ->
  nlen (ascii_serialization hd (Tuple s h p)) < U32_MAX_P ->
  (exists w, url_parse dbg hp ho hd (ascii_serialization hd (Tuple s h p)) = POk w
             /\ forall f k, url_origin_fuel dbg hp ho hd f k w = OOk (Tuple s h p) k)
  /\ ((forall d, h <> HDomain d) ->
      exists w, url_parse dbg hp ho hd (unicode_serialization hd tu (Tuple s h p)) = POk w
                /\ forall f k, url_origin_fuel dbg hp ho hd f k w = OOk (Tuple s h p) k).
Print Assumptions C16_rt_bracket.

(* IPv6, no premise about the host functions: with Host::parse and Display of the host MODEL (Model/Host.v,
   any IDNA function, any Host::parse_opaque), for EVERY IPv6 address a (eight 16-bit pieces), every one of the
   five schemes and every port, both serializations of (s, Ipv6(a), p) parse - through the parser model - to a
   URL whose origin is (s, Ipv6(a), p) again.  (Display writes "[" hex digits and ':' "]", at most 65 bytes;
   Host::parse inverts it on all 2^128 addresses - C09_ipv6_rt.) *)
Theorem C16_rt_ipv6_model : forall dbg idna ho tu s a p,
  In s [s_ftp; s_http; s_https; s_ws; s_wss] -> p <= 65535 ->
  length a = 8%nat -> Forall (fun x => x < 65536) a ->
  (exists w, url_parse dbg (Host.host_parse idna) ho Host.host_display
               (ascii_serialization Host.host_display (Tuple s (HIpv6 a) p)) = POk w
             /\ forall f k, url_origin_fuel dbg (Host.host_parse idna) ho Host.host_display f k w
                            = OOk (Tuple s (HIpv6 a) p) k)
  /\ (exists w, url_parse dbg (Host.host_parse idna) ho Host.host_display
                  (unicode_serialization Host.host_display tu (Tuple s (HIpv6 a) p)) = POk w
                /\ forall f k, url_origin_fuel dbg (Host.host_parse idna) ho Host.host_display f k w
                               = OOk (Tuple s (HIpv6 a) p) k).
Proof. exact rt_ipv6_model. Qed.
Check C16_rt_ipv6_model : forall dbg idna ho tu s a p,
  In s [s_ftp; s_http; s_https; s_ws; s_wss] -> p <= 65535 ->
  length a = 8%nat -> Forall (fun x => x < 65536) a ->
  (exists w, url_parse dbg (Host.host_parse idna) ho Host.host_display
               (ascii_serialization Host.host_display (Tuple s (HIpv6 a) p)) = POk w
             /\ forall f k, url_origin_fuel dbg (Host.host_parse idna) ho Host.host_display f k w
                            = OOk (Tuple s (HIpv6 a) p) k)
  /\ (exists w, url_parse dbg (Host.host_parse idna) ho Host.host_display
                  (unicode_serialization Host.host_display tu (Tuple s (HIpv6 a) p)) = POk w
                /\ forall f k, url_origin_fuel dbg (Host.host_parse idna) ho Host.host_display f k w
                               = OOk (Tuple s (HIpv6 a) p) k).
Print Assumptions C16_rt_ipv6_model.

(* the ASCII half of C16_rt_statement for arbitrary host functions, with the premises that make it true: for the origin o of
   ANY result of Url::parse (parser model), if o is a tuple its ASCII serialization parses to a URL whose origin is
   o - provided Display writes a domain as it is and every host that Host::parse RETURNS has a plain or bracketed
   text which Display writes and Host::parse reads back as the same host.  That the scheme is one of the five,
   that the port is a u16 and that the host of the origin was returned by Host::parse are not premises: they are
   proved for origins of parse results, through the blob recursion (Proofs/C16_RTParsed.v tuple_origin_facts). *)
Theorem C16_rt_parsed : forall dbg hp ho hd input u c o c',
  (forall d, hd (HDomain d) = d) ->
  (forall t h, hp t = Ok h ->
     (plain_text (host_fmt hd h) \/ bracket_text (host_fmt hd h))
     /\ hd h = host_fmt hd h /\ hp (host_fmt hd h) = Ok h) ->
  url_parse dbg hp ho hd input = POk u -> url_origin dbg hp ho hd c u = OOk o c' -> is_tuple o = true ->
  nlen (ascii_serialization hd o) < U32_MAX_P ->
  exists w, url_parse dbg hp ho hd (ascii_serialization hd o) = POk w
            /\ url_origin dbg hp ho hd c' w = OOk o c'.
Proof.
  intros dbg hp ho hd input u c o c' Hdom HR. exact (rt_parsed dbg hp ho hd Hdom input u c o c' HR).
Qed.
Check C16_rt_parsed : forall dbg hp ho hd input u c o c',
  (forall d, hd (HDomain d) = d) ->
  (forall t h, hp t = Ok h ->
     (plain_text (host_fmt hd h) \/ bracket_text (host_fmt hd h))
     /\ hd h = host_fmt hd h /\ hp (host_fmt hd h) = Ok h) ->
  url_parse dbg hp ho hd input = POk u -> url_origin dbg hp ho hd c u = OOk o c' -> is_tuple o = true ->
  nlen (ascii_serialization hd o) < U32_MAX_P ->
  exists w, url_parse dbg hp ho hd (ascii_serialization hd o) = POk w
            /\ url_origin dbg hp ho hd c' w = OOk o c'.
Print Assumptions C16_rt_parsed.

(* the Unicode serialization of the origin of a parse result, same premises: it is the ASCII one for IPv4 / IPv6
   hosts; for a domain the round trip holds when the ToUnicode form is plain ASCII and Host::parse reads it back as
   the same host (C12).  Not covered: non-ASCII ToUnicode forms. *)
Theorem C16_rt_parsed_unicode : forall dbg hp ho hd tu input u c s h p c',
  (forall d, hd (HDomain d) = d) ->
  (forall t h, hp t = Ok h ->
     (plain_text (host_fmt hd h) \/ bracket_text (host_fmt hd h))
     /\ hd h = host_fmt hd h /\ hp (host_fmt hd h) = Ok h) ->
  url_parse dbg hp ho hd input = POk u -> url_origin dbg hp ho hd c u = OOk (Tuple s h p) c' ->
  nlen (ascii_serialization hd (Tuple s h p)) < U32_MAX_P ->
  match h with HDomain d => plain_text (tu d) /\ hp (tu d) = Ok h | _ => True end ->
  exists w, url_parse dbg hp ho hd (unicode_serialization hd tu (Tuple s h p)) = POk w
            /\ url_origin dbg hp ho hd c' w = OOk (Tuple s h p) c'.
Proof.
  intros dbg hp ho hd tu input u c s h p c' Hdom HR. exact (rt_parsed_unicode dbg hp ho hd Hdom tu input u c s h p c' HR).
Qed.
Check C16_rt_parsed_unicode : forall dbg hp ho hd tu input u c s h p c',
  (forall d, hd (HDomain d) = d) ->
  (forall t h, hp t = Ok h ->
     (plain_text (host_fmt hd h) \/ bracket_text (host_fmt hd h))
     /\ hd h = host_fmt hd h /\ hp (host_fmt hd h) = Ok h) ->
  url_parse dbg hp ho hd input = POk u -> url_origin dbg hp ho hd c u = OOk (Tuple s h p) c' ->
  nlen (ascii_serialization hd (Tuple s h p)) < U32_MAX_P ->
  match h with HDomain d => plain_text (tu d) /\ hp (tu d) = Ok h | _ => True end ->
  exists w, url_parse dbg hp ho hd (unicode_serialization hd tu (Tuple s h p)) = POk w
            /\ url_origin dbg hp ho hd c' w = OOk (Tuple s h p) c'.
Print Assumptions C16_rt_parsed_unicode.

(* ... and both premises hold for the host MODEL relative to C09's hypothesis on the IDNA function (domains it
   returns are lower-case ASCII without forbidden code points, IPv4 texts are dotted decimal, IPv6 texts bracketed;
   Display/parse round trip = C09_display_rt).  So: parser model + host model, ANY input, ANY nesting of blob:,
   any Host::parse_opaque - the ASCII serialization of the tuple origin of the parse result parses back to a URL
   with that origin.  Remaining premises: IdnaOK idna (C09 / C12) and a serialization shorter than 2^32. *)
Theorem C16_rt_parsed_model : forall dbg idna ho input u c o c',
  C09_Host.IdnaOK idna ->
  url_parse dbg (Host.host_parse idna) ho Host.host_display input = POk u ->
  url_origin dbg (Host.host_parse idna) ho Host.host_display c u = OOk o c' -> is_tuple o = true ->
  nlen (ascii_serialization Host.host_display o) < U32_MAX_P ->
  exists w, url_parse dbg (Host.host_parse idna) ho Host.host_display (ascii_serialization Host.host_display o) = POk w
            /\ url_origin dbg (Host.host_parse idna) ho Host.host_display c' w = OOk o c'.
Proof. exact rt_parsed_model. Qed.
Check C16_rt_parsed_model : forall dbg idna ho input u c o c',
  C09_Host.IdnaOK idna ->
  url_parse dbg (Host.host_parse idna) ho Host.host_display input = POk u ->
  url_origin dbg (Host.host_parse idna) ho Host.host_display c u = OOk o c' -> is_tuple o = true ->
  nlen (ascii_serialization Host.host_display o) < U32_MAX_P ->
  exists w, url_parse dbg (Host.host_parse idna) ho Host.host_display (ascii_serialization Host.host_display o) = POk w
            /\ url_origin dbg (Host.host_parse idna) ho Host.host_display c' w = OOk o c'.
Print Assumptions C16_rt_parsed_model.

(* non-vacuity: the whole chain executed inside Coq (real parser model, stand-in host functions that
   keep a domain as it is).  https://example.com:8443/x has the tuple origin (https, example.com, 8443),
   which serializes to https://example.com:8443, which parses to a URL with the same origin;
   blob:blob:https://h:443/x has the origin (https, h, 443) of the embedded URL, serialized as https://h
   (default port elided) and round-trips; data:x, blob:garbage, file:///tmp/x and blob:blob:/ + three
   double quotes (whose inner serialization is longer than the outer path - the fuel still suffices)
   take consecutive opaque identities; http://h:80/ and ws://h/ agree on host and effective port and
   differ in scheme, so their origins are unequal. *)
Example C16_premises_hold :
  rt_of_text t_https_example_8443_x
  = Some (Tuple s_https (HDomain t_example_com) 8443, t_https_example_8443,
          Some (OOk (Tuple s_https (HDomain t_example_com) 8443) 0))
  /\ rt_of_text t_blob_blob_https_h_443_x
     = Some (Tuple s_https (HDomain [104]) 443, t_https_h, Some (OOk (Tuple s_https (HDomain [104]) 443) 0))
  /\ origin_of_text 5 t_data_x = Some (OOk (Opaque 5) 6)
  /\ origin_of_text 6 t_blob_garbage = Some (OOk (Opaque 6) 7)
  /\ origin_of_text 7 t_file_tmp_x = Some (OOk (Opaque 7) 8)
  /\ origin_of_text 0 t_blob_blob_quotes = Some (OOk (Opaque 0) 1)
  /\ origin_of_text 0 t_http_h_80 = Some (OOk (Tuple s_http (HDomain [104]) 80) 0)
  /\ origin_of_text 0 t_ws_h = Some (OOk (Tuple s_ws (HDomain [104]) 80) 0)
  /\ origin_eqb (Tuple s_http (HDomain [104]) 80) (Tuple s_ws (HDomain [104]) 80) = false.
Proof. exact examples. Qed.

(* concrete values for C16_parse_colons and C16_rt_ipv6_model (no theorem is instantiated; the terms are
   evaluated): blob:blob:https://h:443/x (4 ':') parses to a blob URL whose path blob:https://h:443/x has 3; the
   host model writes Ipv6(::1) as [::1] (bracketed), so (https, ::1, 8443) serializes to https://[::1]:8443,
   and (http, 2001:db8::1:0:0:1, 80) to http://[2001:db8::1:0:0:1] - texts that C16_rt_ipv6_model parses back. *)
Example C16_premises_hold_2 :
  (exists v, toy_parse t_blob_blob_https_h_443_x = POk v /\ scheme v = Some s_blob
             /\ path v = Some t_blob_https_h_443_x
             /\ count58 t_blob_https_h_443_x = 3%nat /\ count58 t_blob_blob_https_h_443_x = 4%nat)
  /\ Host.host_display (HIpv6 [0; 0; 0; 0; 0; 0; 0; 1]) = [91; 58; 58; 49; 93]
  /\ ascii_serialization Host.host_display (Tuple s_https (HIpv6 [0; 0; 0; 0; 0; 0; 0; 1]) 8443)
     = [104; 116; 116; 112; 115; 58; 47; 47; 91; 58; 58; 49; 93; 58; 56; 52; 52; 51]
  /\ ascii_serialization Host.host_display (Tuple s_http (HIpv6 [8193; 3512; 0; 0; 1; 0; 0; 1]) 80)
     = [104; 116; 116; 112; 58; 47; 47; 91; 50; 48; 48; 49; 58; 100; 98; 56; 58; 58; 49; 58; 48; 58; 48; 58; 49; 93].
Proof. exact (conj colons_example ipv6_texts). Qed.

(* the premise IdnaOK of C16_rt_parsed_model is satisfiable: the identity on ASCII strings without denied
   characters (so the premises of C16_rt_parsed hold for Host.host_parse idna_clean / Host.host_display) *)
Example C16_premises_hold_3 : C09_Host.IdnaOK idna_clean.
Proof. exact idna_clean_ok. Qed.

(* The Unicode half at host level. *)
From RU Require Import Base.U32_c13 Model.Punycode Model.Uts46 Proofs.Idna_Known Proofs.Idna_Hyp Proofs.Idna_C10_Inner
  Proofs.Idna_C10b_Long Proofs.Idna_C10b_Stmt Proofs.Idna_WalkEnc Proofs.Idna_C10c_Drun Proofs.Idna_C12c_Stmt4
  Proofs.Idna_C12d_Round Proofs.Idna_C12d_Stmt5 Proofs.C09_InstIdna Proofs.C16_UniHost.

(* the premise `hp (tu d) = Ok h` of C16_rt_parsed_unicode for the host model linked with the IDNA model and the
   ToUnicode model, non-ASCII Unicode forms included: Host::parse reads the Unicode form of a domain it returned back as
   that domain.  Relative to the eight adapter facts of C12_5 (Properties/C12.v; sampled on the real crate, not proved),
   outside Known_C12 / Known_C10_long, and to two hypotheses on d (the last three premises of the statement):
   (P1) ToUnicode at the EMPTY deny list (origin.rs) = ToUnicode at the URL deny list (host.rs) on d,
   (P2) no '%' in the Unicode form and no leading '['.
   (P1) is the theorem C16_unicode_deny_lists and (P2) the theorem C16_unicode_form_clean below; C16_unicode_host_full
   is this theorem with both supplied. *)
Theorem C16_unicode_host : forall A cfg,
  AdapterOK A -> AdapterUSV A -> NvNoTrunc A -> NvIdem A -> AsciiNoMark A -> MapPrefix A -> NvMapFix A -> NvNoGrow A ->
  forall d b, Forall (fun c => c < 128) d -> to_ascii A cfg d DENY_URL HAllow DIgnore = U32_c13.Ok (b, d) ->
  Known_C12 A cfg d DENY_URL HAllow = false -> Known_C10_long d = false ->
  d <> [] -> Host.ends_in_a_number d = false ->
  let t := ui_text (domain_to_unicode A cfg d) in
  ui_text (to_unicode A cfg d DENY_EMPTY HAllow) = ui_text (to_unicode A cfg d DENY_URL HAllow) ->
  ~ In 37 (utf8_encode t) -> Host.starts_with 91 t = false ->
  Host.host_parse (idna_of A cfg) t = HostT.Ok (HDomain d).
Proof. exact uni_host_rt_origin. Qed.
Check C16_unicode_host : forall A cfg,
  AdapterOK A -> AdapterUSV A -> NvNoTrunc A -> NvIdem A -> AsciiNoMark A -> MapPrefix A -> NvMapFix A -> NvNoGrow A ->
  forall d b, Forall (fun c => c < 128) d -> to_ascii A cfg d DENY_URL HAllow DIgnore = U32_c13.Ok (b, d) ->
  Known_C12 A cfg d DENY_URL HAllow = false -> Known_C10_long d = false ->
  d <> [] -> Host.ends_in_a_number d = false ->
  let t := ui_text (domain_to_unicode A cfg d) in
  ui_text (to_unicode A cfg d DENY_EMPTY HAllow) = ui_text (to_unicode A cfg d DENY_URL HAllow) ->
  ~ In 37 (utf8_encode t) -> Host.starts_with 91 t = false ->
  Host.host_parse (idna_of A cfg) t = HostT.Ok (HDomain d).
Print Assumptions C16_unicode_host.

Example C16_unicode_host_premises_hold :
  (AdapterOK lowsan4 /\ AdapterUSV lowsan4 /\ NvNoTrunc lowsan4 /\ NvIdem lowsan4 /\ AsciiNoMark lowsan4 /\ MapPrefix lowsan4 /\
   NvMapFix lowsan4 /\ NvNoGrow lowsan4) /\
  to_ascii lowsan4 true W_stmt5_A DENY_URL HAllow DIgnore = U32_c13.Ok (true, W_stmt5_A) /\
  Known_C12 lowsan4 true W_stmt5_A DENY_URL HAllow = false /\ Known_C10_long W_stmt5_A = false /\
  Host.ends_in_a_number W_stmt5_A = false /\
  ui_text (domain_to_unicode lowsan4 true W_stmt5_A) = W_stmt5_U /\
  ui_text (to_unicode lowsan4 true W_stmt5_A DENY_EMPTY HAllow) = ui_text (to_unicode lowsan4 true W_stmt5_A DENY_URL HAllow) /\
  existsb (N.eqb 37) (utf8_encode W_stmt5_U) = false /\ Host.starts_with 91 W_stmt5_U = false /\
  Host.host_parse (idna_of lowsan4 true) W_stmt5_U = HostT.Ok (HDomain W_stmt5_A).
Proof. split; [exact lowsan4_premises5|exact uni_host_example]. Qed.

(* The hypotheses (P1), (P2) of C16_unicode_host as theorems, and the parser model on non-ASCII host text. *)
From RU Require Import Proofs.C16_UniDeny Proofs.C16_RTU Proofs.C16_V4 Proofs.C16_RTUModel.

(* (P1) of C16_unicode_host, for every adapter: for a name that ToASCII accepts at the URL deny list (what Host::parse calls), ToUnicode
   at the EMPTY deny list (what origin.rs calls through idna::domain_to_unicode) and ToUnicode at the URL deny list are
   the same result - text, borrowed flag and error flag.  (An error-free fail-fast run of process_inner at a deny list
   is the run at every smaller deny list that still denies the upper-case letters: Proofs/C16_UniDeny.v deny_sub.) *)
Theorem C16_unicode_deny_lists : forall A cfg d b a,
  to_ascii A cfg d DENY_URL HAllow DIgnore = U32_c13.Ok (b, a) ->
  to_unicode A cfg d DENY_EMPTY HAllow = to_unicode A cfg d DENY_URL HAllow.
Proof. exact p1_empty_url. Qed.
Check C16_unicode_deny_lists : forall A cfg d b a,
  to_ascii A cfg d DENY_URL HAllow DIgnore = U32_c13.Ok (b, a) ->
  to_unicode A cfg d DENY_EMPTY HAllow = to_unicode A cfg d DENY_URL HAllow.
Print Assumptions C16_unicode_deny_lists.

(* (P2) of C16_unicode_host, relative to six of the sampled adapter facts: the Unicode form of a name accepted at the URL deny list
   has no byte '%' in its UTF-8 form and does not start with '[' (every ASCII character of it is outside the URL deny
   list, which contains both) *)
Theorem C16_unicode_form_clean : forall A cfg,
  AdapterOK A -> AdapterUSV A -> NvNoTrunc A -> NvIdem A -> AsciiNoMark A -> MapPrefix A ->
  forall d b a, bytes d -> to_ascii A cfg d DENY_URL HAllow DIgnore = U32_c13.Ok (b, a) ->
  let t := ui_text (to_unicode A cfg d DENY_URL HAllow) in
  ~ In 37 (utf8_encode t) /\ Host.starts_with 91 t = false.
Proof. exact p2_url. Qed.
Check C16_unicode_form_clean : forall A cfg,
  AdapterOK A -> AdapterUSV A -> NvNoTrunc A -> NvIdem A -> AsciiNoMark A -> MapPrefix A ->
  forall d b a, bytes d -> to_ascii A cfg d DENY_URL HAllow DIgnore = U32_c13.Ok (b, a) ->
  let t := ui_text (to_unicode A cfg d DENY_URL HAllow) in
  ~ In 37 (utf8_encode t) /\ Host.starts_with 91 t = false.
Print Assumptions C16_unicode_form_clean.

(* C16_unicode_host_full: C16_unicode_host with (P1), (P2) proved (C16_unicode_deny_lists, C16_unicode_form_clean), so
   without those hypotheses: Host::parse (host model + IDNA model) reads the text origin.rs
   displays for a domain - non-ASCII forms included - back as that domain, and the text consists of scalar values.
   Premises: the eight sampled adapter facts; d is a ToASCII fixed point at the URL deny list, not empty, not ending in
   a number (all three hold for a domain returned by Host::parse outside F-C10-1), outside Known_C12 / Known_C10_long *)
Theorem C16_unicode_host_full : forall A cfg,
  AdapterOK A -> AdapterUSV A -> NvNoTrunc A -> NvIdem A -> AsciiNoMark A -> MapPrefix A -> NvMapFix A -> NvNoGrow A ->
  forall d b, Forall (fun c => c < 128) d -> to_ascii A cfg d DENY_URL HAllow DIgnore = U32_c13.Ok (b, d) ->
  Known_C12 A cfg d DENY_URL HAllow = false -> Known_C10_long d = false ->
  d <> [] -> Host.ends_in_a_number d = false ->
  Host.host_parse (idna_of A cfg) (ui_text (domain_to_unicode A cfg d)) = HostT.Ok (HDomain d)
  /\ usv_list (ui_text (domain_to_unicode A cfg d)).
Proof. exact uni_host_rt_full. Qed.
Check C16_unicode_host_full : forall A cfg,
  AdapterOK A -> AdapterUSV A -> NvNoTrunc A -> NvIdem A -> AsciiNoMark A -> MapPrefix A -> NvMapFix A -> NvNoGrow A ->
  forall d b, Forall (fun c => c < 128) d -> to_ascii A cfg d DENY_URL HAllow DIgnore = U32_c13.Ok (b, d) ->
  Known_C12 A cfg d DENY_URL HAllow = false -> Known_C10_long d = false ->
  d <> [] -> Host.ends_in_a_number d = false ->
  Host.host_parse (idna_of A cfg) (ui_text (domain_to_unicode A cfg d)) = HostT.Ok (HDomain d)
  /\ usv_list (ui_text (domain_to_unicode A cfg d)).
Print Assumptions C16_unicode_host_full.

(* the parser model on a NON-ASCII host text, arbitrary host functions: the byte string  scheme "://" UTF-8(T) [":" port]
   - T any non-empty list of scalar values above the space without : / \ ? # @ [ ] (freec), ASCII or not - parses to a URL
   whose origin is (scheme, h, port), when Host::parse reads T as h and Display writes h as a non-empty text not ending in '/' *)
Theorem C16_rt_unicode_text : forall dbg hp ho hd s c t h p,
  In s [s_ftp; s_http; s_https; s_ws; s_wss] -> p <= 65535 ->
  forallb freec (c :: t) = true -> usv_list (c :: t) -> hp (c :: t) = HostT.Ok h ->
  hd h = host_fmt hd h -> host_fmt hd h <> [] -> ends_with_byte 47 (host_fmt hd h) = false ->
  nlen (tuple_serialization s (host_fmt hd h) p) < U32_MAX_P ->
  exists w, url_parse dbg hp ho hd (tuple_serialization s (utf8_encode (c :: t)) p) = POk w
            /\ forall f k, url_origin_fuel dbg hp ho hd f k w = OOk (Tuple s h p) k.
Proof. exact rt_text_free. Qed.
Check C16_rt_unicode_text : forall dbg hp ho hd s c t h p,
  In s [s_ftp; s_http; s_https; s_ws; s_wss] -> p <= 65535 ->
  forallb freec (c :: t) = true -> usv_list (c :: t) -> hp (c :: t) = HostT.Ok h ->
  hd h = host_fmt hd h -> host_fmt hd h <> [] -> ends_with_byte 47 (host_fmt hd h) = false ->
  nlen (tuple_serialization s (host_fmt hd h) p) < U32_MAX_P ->
  exists w, url_parse dbg hp ho hd (tuple_serialization s (utf8_encode (c :: t)) p) = POk w
            /\ forall f k, url_origin_fuel dbg hp ho hd f k w = OOk (Tuple s h p) k.
Print Assumptions C16_rt_unicode_text.

(* the Unicode half for origins of parse results, non-ASCII ToUnicode forms included: parser model + host model + IDNA
   model (Host::parse's IDNA step = idna_of A cfg) + ToUnicode model (idna::domain_to_unicode = origin_tu A cfg), ANY
   input, any blob nesting, any Host::parse_opaque.  If the origin of the parse result is (s, Domain d, p), its Unicode
   serialization parses to a URL with that origin.  Premises: the eight sampled adapter facts; d is outside Known_C12
   (F-C12-1 / F-C16-1) and Known_C10_long (F-C10-1); ASCII serialization shorter than 2^32.  No IdnaOK, no premise on
   the host functions: that d - a domain RETURNED by Host::parse, outside Known_C10_long - is a fixed point of the IDNA
   step is proved (C10, idempotence of ToASCII). *)
Theorem C16_rt_unicode_model : forall A cfg,
  AdapterOK A -> AdapterUSV A -> NvNoTrunc A -> NvIdem A -> AsciiNoMark A -> MapPrefix A -> NvMapFix A -> NvNoGrow A ->
  forall dbg ho input u c s d p c',
  url_parse dbg (Host.host_parse (idna_of A cfg)) ho Host.host_display input = POk u ->
  url_origin dbg (Host.host_parse (idna_of A cfg)) ho Host.host_display c u = OOk (Tuple s (HDomain d) p) c' ->
  Known_C12 A cfg d DENY_URL HAllow = false -> Known_C10_long d = false ->
  nlen (ascii_serialization Host.host_display (Tuple s (HDomain d) p)) < U32_MAX_P ->
  exists w, url_parse dbg (Host.host_parse (idna_of A cfg)) ho Host.host_display
              (unicode_serialization Host.host_display (origin_tu A cfg) (Tuple s (HDomain d) p)) = POk w
            /\ url_origin dbg (Host.host_parse (idna_of A cfg)) ho Host.host_display c' w = OOk (Tuple s (HDomain d) p) c'.
Proof. exact rt_unicode_domain_model. Qed.
Check C16_rt_unicode_model : forall A cfg,
  AdapterOK A -> AdapterUSV A -> NvNoTrunc A -> NvIdem A -> AsciiNoMark A -> MapPrefix A -> NvMapFix A -> NvNoGrow A ->
  forall dbg ho input u c s d p c',
  url_parse dbg (Host.host_parse (idna_of A cfg)) ho Host.host_display input = POk u ->
  url_origin dbg (Host.host_parse (idna_of A cfg)) ho Host.host_display c u = OOk (Tuple s (HDomain d) p) c' ->
  Known_C12 A cfg d DENY_URL HAllow = false -> Known_C10_long d = false ->
  nlen (ascii_serialization Host.host_display (Tuple s (HDomain d) p)) < U32_MAX_P ->
  exists w, url_parse dbg (Host.host_parse (idna_of A cfg)) ho Host.host_display
              (unicode_serialization Host.host_display (origin_tu A cfg) (Tuple s (HDomain d) p)) = POk w
            /\ url_origin dbg (Host.host_parse (idna_of A cfg)) ho Host.host_display c' w = OOk (Tuple s (HDomain d) p) c'.
Print Assumptions C16_rt_unicode_model.

(* IPv4 hosts, no hypothesis on the adapter: Host::parse's IDNA step (IDNA model at the URL deny list, EVERY adapter) maps
   the dotted-decimal text of an IPv4 address to itself - v4_fixed, one of the three hypotheses of C09_idna_premise
   (Properties/C09.v) - and the host model linked with it reads the text Display writes for an IPv4 address (a u32)
   back as that address *)
Theorem C16_ipv4_display_model : forall A cfg,
  v4_fixed A cfg
  /\ (forall a, a < 4294967296 -> Host.host_parse (idna_of A cfg) (Host.ipv4_display a) = HostT.Ok (HIpv4 a)).
Proof. intros A cfg. split; [exact (v4_fixed_model A cfg)|exact (ipv4_display_rt_model A cfg)]. Qed.
Check C16_ipv4_display_model : forall A cfg,
  v4_fixed A cfg
  /\ (forall a, a < 4294967296 -> Host.host_parse (idna_of A cfg) (Host.ipv4_display a) = HostT.Ok (HIpv4 a)).
Print Assumptions C16_ipv4_display_model.

(* the round-trip statement for the host functions of the models (C16_rt_statement, for arbitrary host functions, is
   false: C16_rt_refuted): with Host::parse = host model + IDNA model at the URL deny list, Display = host model,
   idna::domain_to_unicode = ToUnicode model, for the origin o of EVERY parse result, if o is a tuple then its ASCII AND its
   Unicode serialization parse to URLs whose origin is o.  Relative to the eight sampled adapter facts, outside the known
   classes on the host of o (host_known_free: a domain is outside Known_C12 and Known_C10_long; nothing for an IPv4 or
   IPv6 address), for an ASCII serialization shorter than 2^32. *)
Definition C16_rt_statement2 : Prop :=
  forall A cfg,
  AdapterOK A -> AdapterUSV A -> NvNoTrunc A -> NvIdem A -> AsciiNoMark A -> MapPrefix A -> NvMapFix A -> NvNoGrow A ->
  forall dbg ho input u c o c',
  let hp := Host.host_parse (idna_of A cfg) in
  let hd := Host.host_display in
  url_parse dbg hp ho hd input = POk u -> url_origin dbg hp ho hd c u = OOk o c' -> is_tuple o = true ->
  (forall s h p, o = Tuple s h p -> host_known_free A cfg h) ->
  nlen (ascii_serialization hd o) < U32_MAX_P ->
  (exists w, url_parse dbg hp ho hd (ascii_serialization hd o) = POk w /\ url_origin dbg hp ho hd c' w = OOk o c')
  /\ (exists w, url_parse dbg hp ho hd (unicode_serialization hd (origin_tu A cfg) o) = POk w
                /\ url_origin dbg hp ho hd c' w = OOk o c').
Theorem C16_rt : C16_rt_statement2.
Proof. exact rt_both_model. Qed.
Check C16_rt : C16_rt_statement2.
Print Assumptions C16_rt.

(* the exclusion of Known_C12 in C16_rt is necessary, and the property as worded ("the Unicode serialization of a tuple
   origin parses back to a URL with the same origin") is false of the code (F-C16-1 = F-C12-1 at the level of origins).
   The statement (rt_unicode_refuted_stmt, Proofs/C16_RTUModel.v, spelled out in the Check below) exhibits a witness:
   for an adapter that satisfies all eight premises there is an input - https://xn--xn--ss-ztda/ - whose parse result has
   the tuple origin (https, xn--xn--ss-ztda, 443), the domain is a fixed point of the IDNA step and outside
   Known_C10_long, the ASCII serialization round-trips, the domain is in Known_C12, and the Unicode serialization
   https://xn--<U+02EF><U+02EF>ss is rejected by Url::parse (IdnaError).  Confirmed on the real crates:
   Url::parse("https://xn--xn--ss-ztda/").unwrap().origin().unicode_serialization() == "https://xn--\u{2ef}\u{2ef}ss" and
   Url::parse of that is Err(IdnaError) (known mode of the C16 harness, finding F-C16-1). *)
Theorem C16_rt_unicode_refuted : rt_unicode_refuted_stmt.
Proof. exact rt_unicode_refuted. Qed.
Check C16_rt_unicode_refuted :
  exists A,
    (AdapterOK A /\ AdapterUSV A /\ NvNoTrunc A /\ NvIdem A /\ AsciiNoMark A /\ MapPrefix A /\ NvMapFix A /\ NvNoGrow A)
    /\ exists input u s d p,
         url_parse true (Host.host_parse (idna_of A true)) Host.host_parse_opaque Host.host_display input = POk u
         /\ url_origin true (Host.host_parse (idna_of A true)) Host.host_parse_opaque Host.host_display 0 u = OOk (Tuple s (HDomain d) p) 0
         /\ idna_of A true d = Some d /\ Known_C10_long d = false /\ Known_C12 A true d DENY_URL HAllow = true
         /\ (exists w, url_parse true (Host.host_parse (idna_of A true)) Host.host_parse_opaque Host.host_display
                         (ascii_serialization Host.host_display (Tuple s (HDomain d) p)) = POk w
                       /\ url_origin true (Host.host_parse (idna_of A true)) Host.host_parse_opaque Host.host_display 0 w
                          = OOk (Tuple s (HDomain d) p) 0)
         /\ unicode_serialization Host.host_display (origin_tu A true) (Tuple s (HDomain d) p) = t_https_xn_u
         /\ url_parse true (Host.host_parse (idna_of A true)) Host.host_parse_opaque Host.host_display t_https_xn_u = PErr IdnaError.
Print Assumptions C16_rt_unicode_refuted.

(* non-vacuity of C16_rt / C16_rt_unicode_model, executed inside Coq (adapter lowsan4, whose eight premises are
   C16_unicode_host_premises_hold): HTTPS://A.B<u-umlaut>cher:443/x has the origin (https, a.xn--bcher-kva, 443); the domain is
   outside the known classes; the ASCII serialization is https://a.xn--bcher-kva, the Unicode serialization is the
   non-ASCII text https://a.b<u-umlaut>cher; both parse to a URL with the same origin *)
Example C16_rt_premises_hold :
  let o := Tuple s_https (HDomain W_stmt5_A) 443 in
  ex_origin_of t_HTTPS_A_Bucher_443_x = Some (OOk o 0)
  /\ (idna_of lowsan4 true W_stmt5_A = Some W_stmt5_A /\ Known_C12 lowsan4 true W_stmt5_A DENY_URL HAllow = false
      /\ Known_C10_long W_stmt5_A = false)
  /\ ascii_serialization Host.host_display o = t_https_a_xn_bcher
  /\ unicode_serialization Host.host_display (origin_tu lowsan4 true) o = t_https_a_bucher
  /\ ex_origin_of t_https_a_xn_bcher = Some (OOk o 0)
  /\ ex_origin_of t_https_a_bucher = Some (OOk o 0).
Proof. exact rt_unicode_example. Qed.

(* The origin round trip for the real idna oracle, premise on results only.
   C16_rt_parsed_model is stated relative to IdnaOK idna, which is false of the real idna crate (F-C10-1); C09_inst2_C16_rt_parsed
   (Properties/C09.v) has IdnaOK2 + "parse and origin succeed with the capped oracle" in its place.  In C16_rt_parsed_real the
   premise is IdnaOK2 and a predicate on RESULTS: origin_clean u = the parse result u and every URL of its blob chain (url_origin re-enters the
   parser on the path of a blob: URL) passes res_clean (Properties/C09.v: the stored host text is outside Known_C10_long; a
   file URL has kept its host); for a URL that is no blob: URL it is res_clean u alone.  All four runs of the statement
   (parse of the input, its origin, parse of the serialization, its origin) are runs with the oracle idna itself.
   The two Check sentences below unfold origin_clean and one step of chain_clean for the reader. *)
From Coq Require Import String.
From RU Require Import Proofs.C09_Long Proofs.C09_RunClean Proofs.C09_RealOrigin.

Check (eq_refl : origin_clean = fun dbg idna u => chain_clean dbg idna (origin_fuel u) u).
Check (fun dbg idna f u => eq_refl : chain_clean dbg idna (S f) u =
  (res_clean u = true
   /\ match scheme u with
      | Some s =>
          if str_mem s T_ORIGIN_BLOB_SCHEMES then
            match path u with
            | Some p => match url_parse dbg (Host.host_parse idna) Host.host_parse_opaque Host.host_display p with
                        | POk v => chain_clean dbg idna f v
                        | _ => True
                        end
            | None => True
            end
          else True
      | None => True
      end)).

Theorem C16_rt_parsed_real : forall dbg idna, IdnaOK2 idna -> forall input u c o c',
  url_parse dbg (Host.host_parse idna) Host.host_parse_opaque Host.host_display input = POk u ->
  url_origin dbg (Host.host_parse idna) Host.host_parse_opaque Host.host_display c u = OOk o c' -> is_tuple o = true ->
  nlen (ascii_serialization Host.host_display o) < U32_MAX_P -> origin_clean dbg idna u ->
  exists w, url_parse dbg (Host.host_parse idna) Host.host_parse_opaque Host.host_display (ascii_serialization Host.host_display o) = POk w
            /\ url_origin dbg (Host.host_parse idna) Host.host_parse_opaque Host.host_display c' w = OOk o c'.
Proof. exact origin_rt_real. Qed.
Print Assumptions C16_rt_parsed_real.

(* a URL that is no blob: URL: res_clean u alone *)
Theorem C16_origin_clean_nonblob : forall dbg idna u s, scheme u = Some s -> str_mem s T_ORIGIN_BLOB_SCHEMES = false ->
  res_clean u = true -> origin_clean dbg idna u.
Proof. exact origin_clean_nonblob. Qed.
Print Assumptions C16_origin_clean_nonblob.

(* non-vacuity (stand-in oracle idna_long: IdnaOK2 holds, IdnaOK does not): https://a.b:8443/x and blob:https://a.b/x
   have clean chains and tuple origins; the result of http://x/ (host answered inside the class) does not pass res_clean *)
Example C16_rt_parsed_real_examples :
  IdnaOK2 idna_long
  /\ match url_parse true (Host.host_parse idna_long) Host.host_parse_opaque Host.host_display (C02_Reach.B "https://a.b:8443/x"%string) with
     | POk u => origin_clean true idna_long u
                /\ match url_origin true (Host.host_parse idna_long) Host.host_parse_opaque Host.host_display 0 u with
                   | OOk o _ => is_tuple o = true | _ => False end
     | _ => False end
  /\ match url_parse true (Host.host_parse idna_long) Host.host_parse_opaque Host.host_display (C02_Reach.B "blob:https://a.b/x"%string) with
     | POk u => origin_clean true idna_long u
                /\ match url_origin true (Host.host_parse idna_long) Host.host_parse_opaque Host.host_display 0 u with
                   | OOk o _ => is_tuple o = true | _ => False end
     | _ => False end
  /\ match url_parse true (Host.host_parse idna_long) Host.host_parse_opaque Host.host_display (C02_Reach.B "http://x/"%string) with
     | POk u => res_clean u = false | _ => False end.
Proof. exact (conj idna_long_ok2 origin_real_examples). Qed.
