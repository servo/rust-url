(* Properties/C15.v - statements of property C15: form-urlencoded, crate-level part (form_urlencoded/src/lib.rs),
   and Url::query_pairs_mut.  Each theorem is a lemma of Proofs/C15_*.v or a conjunction of such lemmas.
   Strings are lists of UTF-8 bytes, names / values lists of Unicode scalar values.
   Definitions used in the statements:
     parse, serialize_pairs, ser_session, ser_step, ser_finish, ser_for_suffix   Model/FormUrlencoded.v
     parse_spec (split at every '&', drop empty pieces, split at the first '=', decode)  Proofs/C15_Parse.v
     str_session = for_suffix(String, start) . ops . finish(); op_appended; ops_effect   Proofs/C15_Main.v, C15_Ser.v
     pre start s / suf start s = the String before / from start_position                 Proofs/C15_Ser.v
     nlen in C15_suffix, C15_suffix_append, C15_suffix_generic, C15_panics, C15_1_known_refuted is C15_Ser.nlen;
       it and UrlRecord.nlen are both N.of_nat (length l).  nfirstn, nnth in C15_url are those of Model/UrlRecord.v *)
From RU Require Import Model.UrlRecord Model.WF Model.QueryPairs.
From RU Require Import Base.Prelude Base.Utf8 Base.Outcome_c15 Gen.Tables Model.PercentEncoding
  Model.FormUrlencoded Proofs.C15_Table Proofs.C15_Parse Proofs.C15_Bser Proofs.C15_Ser Proofs.C15_Main Proofs.C15_Cow Proofs.C15_Url.

(* the regenerated byte_serialized_unchanged class is exactly [A-Za-z0-9*-._], for every N; the
   separator / plus / space literals of the source are the expected ones *)
Theorem C15_table :
  (forall b, byte_serialized_unchanged b = (is_alnum b || (b =? 42) || (b =? 45) || (b =? 46) || (b =? 95)))
  /\ T_FORM_SPACE = 32 /\ T_FORM_SPACE_OUT = [43] /\ T_FORM_PAIR_SEP = 38 /\ T_FORM_KV_SEP = 61
  /\ T_FORM_PLUS = 43 /\ T_FORM_PLUS_REPL = 32 /\ T_FORM_PUSH_SEP = 38 /\ T_FORM_PUSH_EQ = 61.
Proof. exact (conj unchanged_is_spec form_consts_ok). Qed.
Check C15_table :
  (forall b, byte_serialized_unchanged b = (is_alnum b || (b =? 42) || (b =? 45) || (b =? 46) || (b =? 95)))
  /\ T_FORM_SPACE = 32 /\ T_FORM_SPACE_OUT = [43] /\ T_FORM_PAIR_SEP = 38 /\ T_FORM_KV_SEP = 61
  /\ T_FORM_PLUS = 43 /\ T_FORM_PLUS_REPL = 32 /\ T_FORM_PUSH_SEP = 38 /\ T_FORM_PUSH_EQ = 61.
Print Assumptions C15_table.

(* round trip: serializing any sequence of (name, value) pairs - through extend_pairs or through a
   sequence of append_pair calls - and parsing the result yields the same sequence.  No exclusion:
   the pair ("", "") is written as "=" and reads back as ("", ""). *)
Theorem C15_rt : forall l, usv_pairs l ->
  (exists out, serialize_pairs l = Ok out /\ parse out = Some l)
  /\ (exists out, str_session [] 0 (map (fun p => OpAppendPair (fst p) (snd p)) l) = Ok out /\ parse out = Some l).
Proof.
  intros l Hl. split.
  - destruct (serialize_pairs_rt l Hl) as (out & H1 & H2 & _). exists out. exact (conj H1 H2).
  - destruct (append_pairs_rt l Hl) as (out & H1 & H2 & _). exists out. exact (conj H1 H2).
Qed.
Check C15_rt : forall l, usv_pairs l ->
  (exists out, serialize_pairs l = Ok out /\ parse out = Some l)
  /\ (exists out, str_session [] 0 (map (fun p => OpAppendPair (fst p) (snd p)) l) = Ok out /\ parse out = Some l).
Print Assumptions C15_rt.

(* round trip for every append-only history, keys without value included: append_key_only(k) reads
   back as (k, "") and append_key_only("") writes nothing *)
Theorem C15_rt_ops : forall ops, Forall op_ok ops -> append_only ops = true ->
  exists out, str_session [] 0 ops = Ok out /\ parse out = Some (flat_map op_appended ops).
Proof.
  intros ops Ho Ha. destruct (empty_session_append ops Ho Ha) as (out & H1 & H2 & _).
  exists out. exact (conj H1 H2).
Qed.
Check C15_rt_ops : forall ops, Forall op_ok ops -> append_only ops = true ->
  exists out, str_session [] 0 ops = Ok out /\ parse out = Some (flat_map op_appended ops).
Print Assumptions C15_rt_ops.

(* alphabet: whatever the history (clear, extend, any byte-valued encoding override included), the
   serialized text consists of ASCII letters, digits and * - . _ + % & = *)
Theorem C15_alpha : forall ops, Forall op_ok ops ->
  exists out, str_session [] 0 ops = Ok out
              /\ Forall (fun c => is_alnum c = true \/ In c [42; 45; 46; 95; 43; 37; 38; 61]) out.
Proof.
  intros ops Ho. destruct (str_session_alpha ops Ho) as (out & H1 & H2). exists out. split; [exact H1|].
  eapply Forall_impl; [|exact H2]. intros c. apply form_alpha_spec.
Qed.
Check C15_alpha : forall ops, Forall op_ok ops ->
  exists out, str_session [] 0 ops = Ok out
              /\ Forall (fun c => is_alnum c = true \/ In c [42; 45; 46; 95; 43; 37; 38; 61]) out.
Print Assumptions C15_alpha.

(* parse is total on arbitrary lists (not even restricted to bytes): the result type of the model has
   no panic outcome by construction (the two unwrap()s of Parse::next are on the first item of
   splitn, which always exists), its loop fuel is never exhausted (None), and the result is the closed
   form; empty '&&' segments and leading / trailing '&' are ignored; names and values are scalar values *)
Theorem C15_total : forall bs x y,
  parse bs = Some (parse_spec bs)
  /\ parse (x ++ 38 :: 38 :: y) = parse (x ++ 38 :: y)
  /\ parse (38 :: x) = parse x
  /\ parse (x ++ [38]) = parse x
  /\ parse (x ++ 38 :: y) = Some (parse_spec x ++ parse_spec y)
  /\ Forall (fun p => usv_list (fst p) /\ usv_list (snd p)) (parse_spec bs).
Proof.
  intros bs x y. repeat split.
  - exact (parse_is_spec bs).
  - exact (parse_double_amp x y).
  - exact (parse_amp_head x).
  - exact (parse_amp_tail x).
  - exact (parse_app_amp x y).
  - exact (parse_spec_usv bs).
Qed.
Check C15_total : forall bs x y,
  parse bs = Some (parse_spec bs)
  /\ parse (x ++ 38 :: 38 :: y) = parse (x ++ 38 :: y)
  /\ parse (38 :: x) = parse x
  /\ parse (x ++ [38]) = parse x
  /\ parse (x ++ 38 :: y) = Some (parse_spec x ++ parse_spec y)
  /\ Forall (fun p => usv_list (fst p) /\ usv_list (snd p)) (parse_spec bs).
Print Assumptions C15_total.

(* the iterator protocols agree with the collected forms *)
Theorem C15_views : forall bs,
  parse_next bs <> PFuel
  /\ (exists l, parse_cow bs = Some l /\ map (fun p => (snd (fst p), snd (snd p))) l = parse_spec bs)
  /\ (exists cs, bser_chunks bs = Ok cs
        /\ (bytes bs -> concat cs = bser bs /\ Forall (fun c => c <> []) cs)
        /\ (let n := N.of_nat (length cs) in
            fst (bser_size_hint bs) <= n /\ match snd (bser_size_hint bs) with Some hi => n <= hi | None => True end))
  /\ (bytes bs -> utf8_lossy (decode (map plus_to_space (bser bs))) = utf8_lossy bs)
  /\ snd (replace_plus bs) = map plus_to_space bs
  /\ (fst (replace_plus bs) = BorrowedInput <-> Forall (fun b => b <> 43) bs).
Proof.
  intros bs. split; [exact (parse_next_no_fuel bs)|]. split; [exact (parse_cow_owned bs)|]. split.
  - destruct (bser_chunks_ok bs) as (cs & H1 & H2 & H3 & H4 & H5). exists cs. split; [exact H1|]. split.
    + intros Hb. split; [rewrite H2; exact (bser_t_is_bser bs Hb) | exact (H5 Hb)].
    + exact (bser_size_hint_ok bs cs H1).
  - split; [exact (fdec_bser bs)|]. split; [exact (replace_plus_value bs) | exact (replace_plus_borrow_iff bs)].
Qed.
Print Assumptions C15_views.

(* decode() returns Cow::Borrowed exactly when nothing had to change (no '+', no decodable escape,
   valid UTF-8), and the borrowed text is then the input read as UTF-8 *)
Theorem C15_borrow : forall x,
  (fst (fu_decode x) = BorrowedInput <-> (Forall (fun b => b <> 43) x /\ decode x = x /\ utf8_valid x = true))
  /\ (fst (fu_decode x) = BorrowedInput -> utf8_strict x = inl (snd (fu_decode x)))
  /\ snd (fu_decode x) = utf8_lossy (decode (map plus_to_space x)).
Proof.
  intros x. split; [exact (fu_decode_borrow_iff x)|]. split; [exact (fu_decode_borrowed_value x) | exact (fu_decode_value x)].
Qed.
Print Assumptions C15_borrow.

(* the for_suffix fact, String target: for ANY existing text after start_position, after any history
   outside the known class and finish(), the part before start_position is untouched, the part from
   start_position reads back as the effect of the history on the pairs the old suffix read back as,
   and it stays inside the alphabet if it was *)
Theorem C15_suffix : forall target start ops,
  Forall op_ok ops -> start <= nlen target -> ~ Known_C15_1 target start ops ->
  exists result, str_session target start ops = Ok result
    /\ pre start result = pre start target
    /\ parse (suf start result) = Some (snd (ops_effect (None, parse_spec (suf start target)) ops))
    /\ (Forall (fun c => form_alpha c = true) (suf start target) ->
        Forall (fun c => form_alpha c = true) (suf start result)).
Proof. exact str_session_ok. Qed.
Check C15_suffix : forall target start ops,
  Forall op_ok ops -> start <= nlen target -> ~ Known_C15_1 target start ops ->
  exists result, str_session target start ops = Ok result
    /\ pre start result = pre start target
    /\ parse (suf start result) = Some (snd (ops_effect (None, parse_spec (suf start target)) ops))
    /\ (Forall (fun c => form_alpha c = true) (suf start target) ->
        Forall (fun c => form_alpha c = true) (suf start result)).
Print Assumptions C15_suffix.

(* ... and for append-only histories: the retained pairs followed by the appended ones *)
Theorem C15_suffix_append : forall target start ops,
  Forall op_ok ops -> append_only ops = true -> start <= nlen target ->
  exists result, str_session target start ops = Ok result
    /\ pre start result = pre start target
    /\ (exists old, parse (suf start target) = Some old
                    /\ parse (suf start result) = Some (old ++ flat_map op_appended ops))
    /\ (Forall (fun c => form_alpha c = true) (suf start target) ->
        Forall (fun c => form_alpha c = true) (suf start result)).
Proof. exact str_session_append. Qed.
Check C15_suffix_append : forall target start ops,
  Forall op_ok ops -> append_only ops = true -> start <= nlen target ->
  exists result, str_session target start ops = Ok result
    /\ pre start result = pre start target
    /\ (exists old, parse (suf start target) = Some old
                    /\ parse (suf start result) = Some (old ++ flat_map op_appended ops))
    /\ (Forall (fun c => form_alpha c = true) (suf start target) ->
        Forall (fun c => form_alpha c = true) (suf start result)).
Print Assumptions C15_suffix_append.

(* the same over an arbitrary Target whose as_mut_string is a lens (what Url::query_pairs_mut needs):
   finish() is applied to the target with only its String replaced *)
Theorem C15_suffix_generic : forall (T F : Type) (get : T -> list N) (set : T -> list N -> T) (fin : T -> F),
  (forall t s, get (set t s) = s) -> (forall t a b, set (set t a) b = set t b) -> (forall t, set t (get t) = t) ->
  forall t0 start ops,
  Forall op_ok ops -> start <= nlen (get t0) ->
  (is_char_boundary (get t0) start = true \/ has_clear ops = false) ->
  exists str', ser_session T F get set fin t0 start ops = Ok (fin (set t0 str'))
    /\ start <= nlen str' /\ pre start str' = pre start (get t0)
    /\ parse (suf start str') = Some (snd (ops_effect (None, parse_spec (suf start (get t0))) ops))
    /\ (Forall (fun c => form_alpha c = true) (suf start (get t0)) ->
        Forall (fun c => form_alpha c = true) (suf start str')).
Proof. exact session_ok. Qed.
Check C15_suffix_generic : forall (T F : Type) (get : T -> list N) (set : T -> list N -> T) (fin : T -> F),
  (forall t s, get (set t s) = s) -> (forall t a b, set (set t a) b = set t b) -> (forall t, set t (get t) = t) ->
  forall t0 start ops,
  Forall op_ok ops -> start <= nlen (get t0) ->
  (is_char_boundary (get t0) start = true \/ has_clear ops = false) ->
  exists str', ser_session T F get set fin t0 start ops = Ok (fin (set t0 str'))
    /\ start <= nlen str' /\ pre start str' = pre start (get t0)
    /\ parse (suf start str') = Some (snd (ops_effect (None, parse_spec (suf start (get t0))) ops))
    /\ (Forall (fun c => form_alpha c = true) (suf start (get t0)) ->
        Forall (fun c => form_alpha c = true) (suf start str')).
Print Assumptions C15_suffix_generic.

(* the URL-editing clause.  One session = Url::query_pairs_mut(), any history of Serializer operations
   (clear and encoding_override included), then finish() or Drop (Model/QueryPairs.v), on a well-formed
   Url whose serialization is ASCII (true of every reachable Url, C05), in debug and release builds:
   the session does not panic and yields a Url u' such that
   (1) query_pairs reads the retained pairs followed by the appended ones - the effect of the history on
       the pairs of the old query text ("" when there was no query);
   (2) every offset before the query, the host kind and the port are unchanged, u' has its '?' at the old
       end of the path (path_end u: the old '?', else the old '#', else the old end) and the same bytes
       before it; hence scheme, username, password, host_str and path read the same;
   (3) the fragment reads the same;  (4) u' is well formed again. *)
Theorem C15_url : forall dbg u ops,
  wf_b u = true -> Forall (fun b => b < 128) (ser u) -> Forall op_ok ops ->
  exists u',
    query_pairs_session dbg u ops = Some u'
    /\ query_pairs dbg u' =
       Some (Some (snd (ops_effect (None, parse_spec (match query dbg u with Some (Some x) => x | _ => [] end)) ops)))
    /\ (scheme_end u' = scheme_end u /\ username_end u' = username_end u /\ host_start u' = host_start u
        /\ host_end u' = host_end u /\ hosti u' = hosti u /\ port u' = port u /\ path_start u' = path_start u)
    /\ (query_start u' = Some (path_end u)
        /\ nfirstn (path_end u) (ser u') = nfirstn (path_end u) (ser u)
        /\ nnth (ser u') (path_end u) = Some 63)
    /\ (scheme u' = scheme u /\ username dbg u' = username dbg u /\ password dbg u' = password dbg u
        /\ host_str u' = host_str u /\ path u' = path u)
    /\ fragment dbg u' = fragment dbg u
    /\ wf_b u' = true.
Proof. exact query_pairs_url. Qed.
Check C15_url : forall dbg u ops,
  wf_b u = true -> Forall (fun b => b < 128) (ser u) -> Forall op_ok ops ->
  exists u',
    query_pairs_session dbg u ops = Some u'
    /\ query_pairs dbg u' =
       Some (Some (snd (ops_effect (None, parse_spec (match query dbg u with Some (Some x) => x | _ => [] end)) ops)))
    /\ (scheme_end u' = scheme_end u /\ username_end u' = username_end u /\ host_start u' = host_start u
        /\ host_end u' = host_end u /\ hosti u' = hosti u /\ port u' = port u /\ path_start u' = path_start u)
    /\ (query_start u' = Some (path_end u)
        /\ nfirstn (path_end u) (ser u') = nfirstn (path_end u) (ser u)
        /\ nnth (ser u') (path_end u) = Some 63)
    /\ (scheme u' = scheme u /\ username dbg u' = username dbg u /\ password dbg u' = password dbg u
        /\ host_str u' = host_str u /\ path u' = path u)
    /\ fragment dbg u' = fragment dbg u
    /\ wf_b u' = true.
Print Assumptions C15_url.

(* the panics, exactly.  Documented: for_suffix beyond the end of the target; finish called twice; any
   String-touching operation after finish.  Not documented (known class F-C15-1): clear() when
   start_position is inside a multi-byte character.  Nothing else, and never out of fuel. *)
Theorem C15_panics : forall (T F : Type) (get : T -> list N) (set : T -> list N -> T) (fin : T -> F),
  (forall t start,
      (nlen (get t) < start -> ser_for_suffix T get t start = Panic T_FORM_SITE_FOR_SUFFIX)
      /\ (start <= nlen (get t) -> ser_for_suffix T get t start = Ok (mk_ser (Some t) start None)))
  /\ (forall s : serializer T,
      match ser_target s with
      | Some t => ser_finish T F fin s = Ok (fin t, mk_ser None (ser_start s) (ser_encoding s))
      | None => ser_finish T F fin s = Panic T_FORM_SITE_FINISH
      end)
  /\ (forall (s : serializer T) f s', ser_finish T F fin s = Ok (f, s') ->
      ser_finish T F fin s' = Panic T_FORM_SITE_FINISH
      /\ forall op, ser_step T get set s' op =
                    match op with
                    | OpEncodingOverride o => Ok (mk_ser None (ser_start s') o)
                    | _ => Panic T_FORM_SITE_STRING
                    end)
  /\ (forall (s : serializer T) op,
      match ser_step T get set s op with
      | Ok _ => True
      | OutOfFuel => False
      | Panic x =>
          (ser_target s = None /\ x = T_FORM_SITE_STRING)
          \/ (exists t, ser_target s = Some t /\ op = OpClear /\ x = T_FORM_SITE_CLEAR_TRUNCATE
                        /\ ser_start s <= nlen (get t) /\ is_char_boundary (get t) (ser_start s) = false)
      end).
Proof.
  intros T F get set fin. split; [exact (for_suffix_outcome T get)|]. split; [exact (finish_outcome T F fin)|].
  split; [exact (after_finish T F get set fin) | exact (ser_step_outcome T get set)].
Qed.
Print Assumptions C15_panics.

(* known finding F-C15-1 is real in the model: the class is inhabited and the session panics *)
Theorem C15_1_known_refuted : exists target start ops,
  Known_C15_1 target start ops /\ start <= nlen target /\ Forall op_ok ops
  /\ str_session target start ops = Panic T_FORM_SITE_CLEAR_TRUNCATE.
Proof. exact C15_1_refuted. Qed.
Print Assumptions C15_1_known_refuted.

(* non-vacuity: the documentation example of Serializer, plus the ("", "") pair, and a suffix edit *)
Example C15_premises_hold :
  let foo := [102; 111; 111] in let bar_baz := [98; 97; 114; 32; 38; 32; 98; 97; 122] in
  let saison := [115; 97; 105; 115; 111; 110] in let ete := [201; 116; 233; 43; 104; 105; 118; 101; 114] in
  let l := [(foo, bar_baz); (saison, ete); ([], [])] in
  usv_pairs l
  /\ serialize_pairs l = Ok [102; 111; 111; 61; 98; 97; 114; 43; 37; 50; 54; 43; 98; 97; 122; 38;
                             115; 97; 105; 115; 111; 110; 61; 37; 67; 51; 37; 56; 57; 116; 37; 67; 51; 37; 65; 57;
                             37; 50; 66; 104; 105; 118; 101; 114; 38; 61]
  /\ (match serialize_pairs l with Ok out => parse out | _ => None end) = Some l
  /\ str_session [120; 63; 97; 61; 98] 2 [OpAppendKeyOnly [107]; OpAppendKeyOnly []; OpAppendPair [] []]
     = Ok [120; 63; 97; 61; 98; 38; 107; 38; 38; 61]
  /\ parse [97; 61; 98; 38; 107; 38; 38; 61] = Some [([97], [98]); ([107], []); ([], [])].
Proof.
  cbv zeta. split.
  - repeat constructor; cbn [fst snd]; repeat constructor; unfold is_usv; lia.
  - vm_compute. repeat split.
Qed.
