(* Properties/C10.v - IDNA ToASCII output properties.  Statements; the lemmas are in Proofs/Idna_C10*.v (C10_dns,
   C10_entry, C10_ascii_partial and the *_premises_hold examples are put together here from those lemmas).
   C10_ascii_statement (Proofs/Idna_Hyp.v) is proved for all inputs relative to the adapter premise NvNoTrunc
   (C10_ascii) and refuted without it (C10_ascii_unconditional_refuted).
   C10_idem_statement and C10_case_statement (Proofs/Idna_Hyp.v) are REFUTED as written (C10_idem_refuted: F-C10-1,
   a label of at most 1000 scalar values whose Punycode form is longer than 2000; C10_case_refuted: AdapterOK does
   not constrain bidi_class).  Both are proved, for every adapter, on the adapter-free class AN (all-ASCII names
   without an xn-- label): C10_an, C10_idem_an, C10_case_an.  The statements of Proofs/Idna_C10b_Stmt.v, for all inputs
   relative to sampled adapter premises (see theorem_notes in tools/props_d/C10.py):
   - C10_idem_statement2 (idempotence outside Known_C10_long; premises AdapterOK, NvNoTrunc, NvIdem, AsciiNoMark) is
     REFUTED for an abstract adapter (C10_idem2_refuted, adapter ctxad).  The idempotence statement that holds is
     C10_idem_statement3 of Proofs/Idna_C10c_Idem.v (C10_idem3, C10_idem3_rel): the premises of C10_idem_statement2 and
     AdapterUSV, MapPrefix; its conclusion is the stronger one, the second call returns the text Borrowed.
   - C10_case_statement2 (case-insensitivity, every input; premises AdapterOK and PassBidi) is PROVED (C10_case3,
     C10_case3_rel; lemma c10_case3 of Proofs/Idna_C10d_Case.v).  PassBidi follows from the sampled bidi classes of
     a-z 0-9 '-' by C10_pass_bidi. *)
From RU Require Import Base.Prelude Base.Utf8 Base.U32_c13 Gen.Tables Model.Punycode Model.Uts46
  Proofs.Idna_Sim Proofs.Idna_Api Proofs.Idna_Known Proofs.Idna_Hyp Proofs.Idna_Tables Proofs.Idna_Redisc
  Proofs.Idna_C10_Deny Proofs.Idna_C10_Prefix Proofs.Idna_C10_Inner Proofs.Idna_C10_Walk Proofs.Idna_C10_Config
  Proofs.Idna_C10b_Long Proofs.Idna_C10b_AsciiInner Proofs.Idna_C10b_AsciiWalk Proofs.Idna_C10b_Stmt Proofs.Idna_C10b_LongRej
  Proofs.Idna_WalkEnc Proofs.Idna_C10c_Puny Proofs.Idna_C10c_Start Proofs.Idna_C10c_Drun Proofs.Idna_C10c_Idem Proofs.Idna_C10c_Example Proofs.Idna_C10c_Refute
  Proofs.Idna_C10d_CaseLabel Proofs.Idna_C10d_CaseLoop Proofs.Idna_C10d_Case Proofs.Idna_C10d_PassBidi.

(* a borrowed result is the input *)
Theorem C10_borrow : forall A cfg d deny hy dns r, to_ascii A cfg d deny hy dns = Ok (true, r) -> r = d.
Proof. exact to_ascii_borrow. Qed.
Check C10_borrow : forall A cfg d deny hy dns r, to_ascii A cfg d deny hy dns = Ok (true, r) -> r = d.
Print Assumptions C10_borrow.

(* fixed point, the Borrowed results, no premise: a borrowed result is returned unchanged (and borrowed) by the same
   operation.  The Owned results are covered by C10_idem3 (adapter premises, outside Known_C10_long); C10_idem_statement,
   which claims them relative to AdapterOK and PunyRT alone, is refuted by C10_idem_refuted *)
Theorem C10_idem_borrowed : forall A cfg d deny hy dns r,
  to_ascii A cfg d deny hy dns = Ok (true, r) -> to_ascii A cfg r deny hy dns = Ok (true, r).
Proof. exact to_ascii_idem_borrowed. Qed.
Check C10_idem_borrowed : forall A cfg d deny hy dns r,
  to_ascii A cfg d deny hy dns = Ok (true, r) -> to_ascii A cfg r deny hy dns = Ok (true, r).
Print Assumptions C10_idem_borrowed.

(* F-C10-1: C10_idem_statement is false (outside Known_C12), for an adapter that satisfies AdapterOK: a label of 1000
   ideographs is accepted, its Punycode form has 2958 characters after xn--, and to_ascii rejects that *)
Theorem C10_idem_refuted : exists A cfg, AdapterOK A /\ ~ C10_idem_statement A cfg.
Proof. exact c10_idem_refuted. Qed.
Check C10_idem_refuted : exists A cfg, AdapterOK A /\ ~ C10_idem_statement A cfg.
Print Assumptions C10_idem_refuted.

Theorem C10_long_witness :
  bytes W_C10_long /\ len W_C10_long_U = 1000 /\ len W_C10_long_A = 2962 /\
  to_ascii lowad false W_C10_long DENY_EMPTY HAllow DIgnore = Ok (false, W_C10_long_A) /\
  to_ascii lowad false W_C10_long_A DENY_EMPTY HAllow DIgnore = Err /\
  Known_C10_long W_C10_long_A = true /\
  Known_C12 lowad false W_C10_long DENY_EMPTY HAllow = false /\
  Known_C11 lowad false W_C10_long DENY_EMPTY HAllow = false.
Proof. exact w_c10_long. Qed.
Check C10_long_witness :
  bytes W_C10_long /\ len W_C10_long_U = 1000 /\ len W_C10_long_A = 2962 /\
  to_ascii lowad false W_C10_long DENY_EMPTY HAllow DIgnore = Ok (false, W_C10_long_A) /\
  to_ascii lowad false W_C10_long_A DENY_EMPTY HAllow DIgnore = Err /\
  Known_C10_long W_C10_long_A = true /\
  Known_C12 lowad false W_C10_long DENY_EMPTY HAllow = false /\
  Known_C11 lowad false W_C10_long DENY_EMPTY HAllow = false.
Print Assumptions C10_long_witness.

(* every member of the class Known_C10_long is rejected - every adapter, every option combination: an all-ASCII name
   with a label that starts with xn-- and has more than 2000 characters after it is never accepted.  So a result of
   to_ascii inside the class (they exist: C10_long_witness) is never a fixed point: the exclusion of the class from
   the idempotence statement is necessary *)
Theorem C10_long_rejected : forall A cfg r deny hy dns b x, Forall (fun c => c < 128) r -> Known_C10_long r = true ->
  to_ascii A cfg r deny hy dns <> Ok (b, x).
Proof. exact long_rejected. Qed.
Check C10_long_rejected : forall A cfg r deny hy dns b x, Forall (fun c => c < 128) r -> Known_C10_long r = true ->
  to_ascii A cfg r deny hy dns <> Ok (b, x).
Print Assumptions C10_long_rejected.

(* C10_case_statement is false relative to AdapterOK alone: "a.<alef>" is accepted, "A.<alef>" is not, for an adapter
   whose bidi class of 'a' cannot start a label (the labels of the pass-through prefix are never submitted to the
   bidi rule).  Not a defect with the real data, where the bidi rule accepts every pass-through label. *)
Theorem C10_case_refuted : exists A, AdapterOK A /\ forall cfg, ~ C10_case_statement A cfg.
Proof. exact c10_case_refuted. Qed.
Check C10_case_refuted : exists A, AdapterOK A /\ forall cfg, ~ C10_case_statement A cfg.
Print Assumptions C10_case_refuted.

(* the adapter-free class AN d = every dot-separated label of d is ASCII and does not start with xn-- (any case):
   to_ascii in closed form, EVERY adapter, every option combination, debug assertions on or off.  The text is the ASCII
   lower-casing of the name; it is accepted iff every label is accepted (lab_acc: no character of the label is in the
   deny list once upper-case letters are folded, and the requested hyphen checks pass) and - when DNS length
   verification is requested - the lower-cased name satisfies the limits *)
Theorem C10_an : forall A cfg d deny hy dns, AN d -> valid_deny deny ->
  exists b, to_ascii A cfg d deny hy dns =
    if forallb (lab_acc deny hy) (split_on DOT d)
       && (dns_is_ignore dns || verify_dns_length (map to_lower d) (dns_is_root dns))
    then Ok (b, map to_lower d) else Err.
Proof. exact c10_an. Qed.
Check C10_an : forall A cfg d deny hy dns, AN d -> valid_deny deny ->
  exists b, to_ascii A cfg d deny hy dns =
    if forallb (lab_acc deny hy) (split_on DOT d)
       && (dns_is_ignore dns || verify_dns_length (map to_lower d) (dns_is_root dns))
    then Ok (b, map to_lower d) else Err.
Print Assumptions C10_an.

(* fixed point on the class (Owned results included), every adapter *)
Theorem C10_idem_an : forall A cfg d deny hy dns b r, AN d -> valid_deny deny ->
  to_ascii A cfg d deny hy dns = Ok (b, r) ->
  r = map to_lower d /\ AN r /\ exists b', to_ascii A cfg r deny hy dns = Ok (b', r).
Proof. exact c10_idem_an. Qed.
Check C10_idem_an : forall A cfg d deny hy dns b r, AN d -> valid_deny deny ->
  to_ascii A cfg d deny hy dns = Ok (b, r) ->
  r = map to_lower d /\ AN r /\ exists b', to_ascii A cfg r deny hy dns = Ok (b', r).
Print Assumptions C10_idem_an.

(* the result does not change when ASCII letters of the input change case, on the class, every adapter *)
Theorem C10_case_an : forall A cfg d d' deny hy dns b r, AN d -> valid_deny deny ->
  ascii_case_variant d d' -> to_ascii A cfg d deny hy dns = Ok (b, r) ->
  AN d' /\ exists b', to_ascii A cfg d' deny hy dns = Ok (b', r).
Proof. exact c10_case_an. Qed.
Check C10_case_an : forall A cfg d d' deny hy dns b r, AN d -> valid_deny deny ->
  ascii_case_variant d d' -> to_ascii A cfg d deny hy dns = Ok (b, r) ->
  AN d' /\ exists b', to_ascii A cfg d' deny hy dns = Ok (b', r).
Print Assumptions C10_case_an.

(* idempotence, EVERY input (Owned results, non-ASCII and xn-- labels included), every option combination, every deny
   list the API can build, outside the class Known_C10_long of F-C10-1: the result of to_ascii is returned by to_ascii
   unchanged and BORROWED.  Premises about the adapter only, each sampled on the real idna_adapter by the `adapter`
   stream of the harness: AdapterOK (ok_ascii, ok_case, ok_stable, ok_fffd), AdapterUSV (adapterusv), NvNoTrunc
   (nvnotrunc), NvIdem (ok_nv_idem), AsciiNoMark (ok_ascii_nomark), MapPrefix (ok_map_prefix: map_normalize of an ASCII
   text followed by a text that starts with an ASCII character = the lower-cased ASCII text followed by map_normalize
   of the rest).  This is C10_idem_statement3 (C10_idem3_rel).  Neither C10_idem_statement (no exclusion of
   Known_C10_long: C10_idem_refuted) nor C10_idem_statement2 (no MapPrefix: C10_idem2_refuted) holds *)
Theorem C10_idem3 : forall A cfg, AdapterOK A -> AdapterUSV A -> NvNoTrunc A -> NvIdem A -> AsciiNoMark A -> MapPrefix A ->
  forall d deny hy dns b r, bytes d -> valid_deny deny ->
  to_ascii A cfg d deny hy dns = Ok (b, r) -> Known_C10_long r = false ->
  to_ascii A cfg r deny hy dns = Ok (true, r).
Proof. exact c10_idem3. Qed.
Check C10_idem3 : forall A cfg, AdapterOK A -> AdapterUSV A -> NvNoTrunc A -> NvIdem A -> AsciiNoMark A -> MapPrefix A ->
  forall d deny hy dns b r, bytes d -> valid_deny deny ->
  to_ascii A cfg d deny hy dns = Ok (b, r) -> Known_C10_long r = false ->
  to_ascii A cfg r deny hy dns = Ok (true, r).
Print Assumptions C10_idem3.

Theorem C10_idem3_rel : forall A cfg, C10_idem_statement3 A cfg.
Proof. exact c10_idem3. Qed.
Check C10_idem3_rel : forall A cfg, C10_idem_statement3 A cfg.
Print Assumptions C10_idem3_rel.

(* the six premises are satisfiable (adapter lowsan: ASCII lower-casing, non-scalar values become U+FFFD), and a
   non-ASCII name goes through: "A.B<u-umlaut>cher" -> "a.xn--bcher-kva" (Owned), which the second call borrows *)
Example C10_idem3_premises_hold :
  (AdapterOK lowsan /\ AdapterUSV lowsan /\ NvNoTrunc lowsan /\ NvIdem lowsan /\ AsciiNoMark lowsan /\ MapPrefix lowsan) /\
  to_ascii lowsan true W_idem3 DENY_URL HCheck DVerify = Ok (false, W_idem3_A) /\
  Known_C10_long W_idem3_A = false /\
  to_ascii lowsan true W_idem3_A DENY_URL HCheck DVerify = Ok (true, W_idem3_A).
Proof. split; [exact lowsan_premises|exact w_idem3]. Qed.

(* the premise MapPrefix of C10_idem3 cannot be dropped: C10_idem_statement2 (premises AdapterOK, NvNoTrunc, NvIdem, AsciiNoMark
   only) is FALSE for an abstract adapter.  ctxad rewrites U+00EA to U+00EB exactly after "ab", in both normalizers; for
   the label "ab" U+00EA uts46.rs maps only the tail "b" U+00EA, returns xn--ab-fja, and rejects that.  A refutation of
   the STATEMENT, not a defect of the crate: the real map_normalize satisfies MapPrefix (sampled fact ok_map_prefix) *)
Theorem C10_idem2_refuted : exists A cfg, AdapterOK A /\ NvNoTrunc A /\ NvIdem A /\ AsciiNoMark A /\ ~ C10_idem_statement2 A cfg.
Proof. exact c10_idem2_refuted. Qed.
Check C10_idem2_refuted : exists A cfg, AdapterOK A /\ NvNoTrunc A /\ NvIdem A /\ AsciiNoMark A /\ ~ C10_idem_statement2 A cfg.
Print Assumptions C10_idem2_refuted.

Theorem C10_idem2_witness :
  to_ascii ctxad false W_idem2 DENY_EMPTY HAllow DIgnore = Ok (false, W_idem2_A) /\
  Known_C10_long W_idem2_A = false /\
  to_ascii ctxad false W_idem2_A DENY_EMPTY HAllow DIgnore = Err /\
  map_normalize ctxad [97; 98; 234] = [97; 98; 235] /\ map_normalize ctxad [98; 234] = [98; 234].
Proof. exact w_idem2. Qed.
Check C10_idem2_witness :
  to_ascii ctxad false W_idem2 DENY_EMPTY HAllow DIgnore = Ok (false, W_idem2_A) /\
  Known_C10_long W_idem2_A = false /\
  to_ascii ctxad false W_idem2_A DENY_EMPTY HAllow DIgnore = Err /\
  map_normalize ctxad [97; 98; 234] = [97; 98; 235] /\ map_normalize ctxad [98; 234] = [98; 234].
Print Assumptions C10_idem2_witness.

(* case-insensitivity, EVERY input (non-ASCII and xn-- labels included), every option combination, every deny list
   the API can build, Borrowed and Owned results: the result does not change when ASCII letters of the input change
   case.  Premises about the adapter only, each sampled on the real idna_adapter by the `adapter` stream: AdapterOK
   (fields used: ok_nil, ok_case) and PassBidi (the bidi rule accepts every pass-through label; C10_pass_bidi derives it
   from the sampled bidi classes of a-z, 0-9 and '-').  Without PassBidi the statement is false for an abstract adapter
   (C10_case_refuted).  This is C10_case_statement2 of Proofs/Idna_C10b_Stmt.v (C10_case3_rel) *)
Theorem C10_case3 : forall A cfg, AdapterOK A -> PassBidi A -> forall d d' deny hy dns b r,
  bytes d -> valid_deny deny -> ascii_case_variant d d' ->
  to_ascii A cfg d deny hy dns = Ok (b, r) -> exists b', to_ascii A cfg d' deny hy dns = Ok (b', r).
Proof. exact c10_case3. Qed.
Check C10_case3 : forall A cfg, AdapterOK A -> PassBidi A -> forall d d' deny hy dns b r,
  bytes d -> valid_deny deny -> ascii_case_variant d d' ->
  to_ascii A cfg d deny hy dns = Ok (b, r) -> exists b', to_ascii A cfg d' deny hy dns = Ok (b', r).
Print Assumptions C10_case3.

Theorem C10_case3_rel : forall A cfg, C10_case_statement2 A cfg.
Proof. exact c10_case3. Qed.
Check C10_case3_rel : forall A cfg, C10_case_statement2 A cfg.
Print Assumptions C10_case3_rel.

(* PassBidi from the bidi classes the harness samples (ok_pass_bidi): a-z can start, end and continue an LTR label,
   0-9 can end and continue one, '-' can continue one, none of them is a non-spacing mark *)
Theorem C10_pass_bidi : forall A, PassBits A -> PassBidi A.
Proof. exact pass_bidi_of_bits. Qed.
Check C10_pass_bidi : forall A, PassBits A -> PassBidi A.
Print Assumptions C10_pass_bidi.

(* the premises are satisfiable (adapter lowsan), and a non-trivial pair goes through: "A.B<u-umlaut>cher" and
   "a.b<u-umlaut>CHER" have the same result "a.xn--bcher-kva" - in the second run the label "a" is passed through,
   in the first it is processed *)
Example C10_case3_premises_hold :
  AdapterOK lowsan /\ PassBits lowsan /\ PassBidi lowsan /\
  ascii_case_variant W_idem3 W_case3 /\
  to_ascii lowsan true W_idem3 DENY_URL HCheck DVerify = Ok (false, W_idem3_A) /\
  to_ascii lowsan true W_case3 DENY_URL HCheck DVerify = Ok (false, W_idem3_A).
Proof. split; [exact lowsan_ok|]. split; [exact toy_bc_bits|]. split; [exact lowsan_pass_bidi|exact w_case3]. Qed.

(* the two runs of process_inner behind C10_case3: the fail-fast label step on an ASCII case variant of a label returns
   the same buffer text and flag, with the entries MixedCaseAscii / MixedCasePunycode relabelled (both error modes, every
   had_errors; only adapter premise: map_normalize does not see the case of ASCII letters) *)
Theorem C10_case_label : forall A cfg deny, DenyUpper deny -> LdhFree deny ->
  (forall l l', ascii_case_variant l l' -> map_normalize A l = map_normalize A l') ->
  forall ff hy he l l', ascii_case_variant l l' -> bytes l ->
  label_nonempty A cfg ff hy deny l' [] he [] = relab l' (label_nonempty A cfg ff hy deny l [] he []).
Proof. exact label_nonempty_case. Qed.
Check C10_case_label : forall A cfg deny, DenyUpper deny -> LdhFree deny ->
  (forall l l', ascii_case_variant l l' -> map_normalize A l = map_normalize A l') ->
  forall ff hy he l l', ascii_case_variant l l' -> bytes l ->
  label_nonempty A cfg ff hy deny l' [] he [] = relab l' (label_nonempty A cfg ff hy deny l [] he []).
Print Assumptions C10_case_label.

(* the fastest tier of process_inner is invisible: process_inner is the label loop run from the start of the name
   (both error modes, every adapter) *)
Theorem C10_inner_from_start : forall A cfg ff hy deny d, bytes d ->
  process_inner A cfg ff hy deny d = process_innermost A cfg ff hy deny d d.
Proof. exact inner_from_start. Qed.
Check C10_inner_from_start : forall A cfg ff hy deny d, bytes d ->
  process_inner A cfg ff hy deny d = process_innermost A cfg ff hy deny d d.
Print Assumptions C10_inner_from_start.

(* three Punycode facts behind C10_idem3: the u8 decoder does not see the case of ASCII letters; the decoded text of a
   non-empty input that does not end in '-' is not ASCII; the internal encoder never ends the Punycode form of a
   non-ASCII label (at most 1000 scalar values, no upper-case ASCII letter) in '-' *)
Theorem C10_puny_facts :
  (forall cfg p, decode_with cfg U8Internal (map to_lower p) = decode_with cfg U8Internal p) /\
  (forall cfg it p l, decode_with cfg it p = Ok l -> p <> [] -> last_opt p <> Some DELIMITER -> exists c, In c l /\ 128 <= c) /\
  (forall cfg l p, len l <= PUNYCODE_ENCODE_MAX_INPUT_LENGTH -> usv_list l -> existsb is_upper l = false ->
     is_ascii_l l = false -> encode_internal cfg l = Ok p -> p <> [] /\ last_opt p <> Some DELIMITER).
Proof. split; [exact decode_u8_lower|]. split; [exact decode_nonascii|exact encode_no_trailing_delim]. Qed.
Check C10_puny_facts :
  (forall cfg p, decode_with cfg U8Internal (map to_lower p) = decode_with cfg U8Internal p) /\
  (forall cfg it p l, decode_with cfg it p = Ok l -> p <> [] -> last_opt p <> Some DELIMITER -> exists c, In c l /\ 128 <= c) /\
  (forall cfg l p, len l <= PUNYCODE_ENCODE_MAX_INPUT_LENGTH -> usv_list l -> existsb is_upper l = false ->
     is_ascii_l l = false -> encode_internal cfg l = Ok p -> p <> [] /\ last_opt p <> Some DELIMITER).
Print Assumptions C10_puny_facts.

(* ANb is a sound boolean test for the class (one direction only): membership of a concrete name that is in the class
   is shown by computation *)
Theorem C10_an_decidable : forall d, ANb d = true -> AN d.
Proof. exact ANb_spec. Qed.
Check C10_an_decidable : forall d, ANb d = true -> AN d.
Print Assumptions C10_an_decidable.

Example C10_an_premises_hold :
  AN [65; 45; 98; 46; 88; 110; 45; 99; 46] /\ valid_deny DENY_URL /\
  to_ascii toy true [65; 45; 98; 46; 88; 110; 45; 99; 46] DENY_URL HCheck DVerifyAllowRootDot
    = Ok (false, [97; 45; 98; 46; 120; 110; 45; 99; 46]) /\
  lab_acc DENY_URL HCheck [65; 45; 98] = true /\ lab_acc DENY_URL HCheck [65; 45] = false /\ lab_acc DENY_URL HAllow [65; 45] = true /\
  lab_acc DENY_URL HAllow [65; 37] = false.
Proof. exact an_premises_hold. Qed.

(* DNS length limits when verification is requested: labels 1..63, total <= 253 without the root dot,
   root dot only in VerifyAllowRootDot *)
Theorem C10_dns : forall A cfg d deny hy dns b r,
  to_ascii A cfg d deny hy dns = Ok (b, r) -> dns_is_ignore dns = false -> dns_ok (dns_is_root dns) r.
Proof. intros A cfg d deny hy dns b r H Hn. exact (verify_dns_length_ok r _ (to_ascii_dns A cfg d deny hy dns b r H Hn)). Qed.
Check C10_dns : forall A cfg d deny hy dns b r,
  to_ascii A cfg d deny hy dns = Ok (b, r) -> dns_is_ignore dns = false -> dns_ok (dns_is_root dns) r.
Print Assumptions C10_dns.

(* the DNS mode only filters: an accepted result is the result without verification *)
Theorem C10_dns_filter : forall A cfg d deny hy dns b r,
  to_ascii A cfg d deny hy dns = Ok (b, r) -> to_ascii A cfg d deny hy DIgnore = Ok (b, r).
Proof. exact to_ascii_dns_ignore. Qed.
Check C10_dns_filter : forall A cfg d deny hy dns b r,
  to_ascii A cfg d deny hy dns = Ok (b, r) -> to_ascii A cfg d deny hy DIgnore = Ok (b, r).
Print Assumptions C10_dns_filter.

(* entry points: the lib.rs wrappers and process(FailFast) are to_ascii with fixed options *)
Theorem C10_entry : forall A cfg d deny s,
  domain_to_ascii_cow A cfg d deny = to_ascii A cfg d deny HAllow DIgnore /\
  domain_to_ascii A cfg s = match to_ascii A cfg (utf8_encode s) DENY_EMPTY HAllow DIgnore with
                            | Ok (_, r) => Ok r | Err => Err | Panic p => Panic p end /\
  domain_to_ascii_strict A cfg s = match to_ascii A cfg (utf8_encode s) DENY_STD3 HCheck DVerify with
                                   | Ok (_, r) => Ok r | Err => Err | Panic p => Panic p end /\
  (forall hy, to_ascii A cfg d deny hy DIgnore =
     match process A cfg true never_unicode d deny hy None None false with
     | (PPassthrough, _, _) => Ok (true, d) | (PWroteToSink, w, _) => Ok (false, w)
     | (PValidityError, _, _) => Err | (PSinkError, _, _) => Panic 569 | (PPanic p, _, _) => Panic p end).
Proof. intros A cfg d deny s. repeat split. Qed.
Check C10_entry : forall A cfg d deny s,
  domain_to_ascii_cow A cfg d deny = to_ascii A cfg d deny HAllow DIgnore /\
  domain_to_ascii A cfg s = match to_ascii A cfg (utf8_encode s) DENY_EMPTY HAllow DIgnore with
                            | Ok (_, r) => Ok r | Err => Err | Panic p => Panic p end /\
  domain_to_ascii_strict A cfg s = match to_ascii A cfg (utf8_encode s) DENY_STD3 HCheck DVerify with
                                   | Ok (_, r) => Ok r | Err => Err | Panic p => Panic p end /\
  (forall hy, to_ascii A cfg d deny hy DIgnore =
     match process A cfg true never_unicode d deny hy None None false with
     | (PPassthrough, _, _) => Ok (true, d) | (PWroteToSink, w, _) => Ok (false, w)
     | (PValidityError, _, _) => Err | (PSinkError, _, _) => Panic 569 | (PPanic p, _, _) => Panic p end).
Print Assumptions C10_entry.

(* entry points, continued: the deprecated Config::to_ascii (all 16 flag sets) is Uts46::to_ascii applied to the
   transitionally mapped text, with deny list STD3 / EMPTY, hyphens CheckFirstLast / Allow, DNS length
   VerifyAllowRootDot / Ignore - same verdict, same text, same panic site *)
Theorem C10_entry_config : forall A cfg c domain, NvNoTrunc A -> usv_list domain ->
  config_to_ascii A cfg c domain =
  match to_ascii A cfg (utf8_encode (map_transitional domain (transitional_processing c)))
          (config_deny_list c) (config_hyphens c)
          (if cfg_verify_dns_length c then DVerifyAllowRootDot else DIgnore) with
  | Ok (_, r) => Ok r | Err => Err | Panic p => Panic p end.
Proof. exact config_to_ascii_agrees. Qed.
Check C10_entry_config : forall A cfg c domain, NvNoTrunc A -> usv_list domain ->
  config_to_ascii A cfg c domain =
  match to_ascii A cfg (utf8_encode (map_transitional domain (transitional_processing c)))
          (config_deny_list c) (config_hyphens c)
          (if cfg_verify_dns_length c then DVerifyAllowRootDot else DIgnore) with
  | Ok (_, r) => Ok r | Err => Err | Panic p => Panic p end.
Print Assumptions C10_entry_config.

(* the output clause at the other entry points (out_ok deny r: every character of r is ASCII, not upper case,
   not in deny): domain_to_ascii_cow, domain_to_ascii, domain_to_ascii_strict, deprecated Config::to_ascii *)
Theorem C10_ascii_entry : forall A cfg, NvNoTrunc A ->
  (forall d deny b r, bytes d -> valid_deny deny -> domain_to_ascii_cow A cfg d deny = Ok (b, r) -> out_ok deny r) /\
  (forall s r, usv_list s -> domain_to_ascii A cfg s = Ok r -> out_ok DENY_EMPTY r) /\
  (forall s r, usv_list s -> domain_to_ascii_strict A cfg s = Ok r -> out_ok DENY_STD3 r) /\
  (forall c s r, usv_list s -> config_to_ascii A cfg c s = Ok r -> out_ok (config_deny_list c) r).
Proof. exact entry_points_output. Qed.
Check C10_ascii_entry : forall A cfg, NvNoTrunc A ->
  (forall d deny b r, bytes d -> valid_deny deny -> domain_to_ascii_cow A cfg d deny = Ok (b, r) -> out_ok deny r) /\
  (forall s r, usv_list s -> domain_to_ascii A cfg s = Ok r -> out_ok DENY_EMPTY r) /\
  (forall s r, usv_list s -> domain_to_ascii_strict A cfg s = Ok r -> out_ok DENY_STD3 r) /\
  (forall c s r, usv_list s -> config_to_ascii A cfg c s = Ok r -> out_ok (config_deny_list c) r).
Print Assumptions C10_ascii_entry.

(* ASCII / lower case / fixed point, the fastest tier only *)
Theorem C10_ascii_partial : forall A cfg d deny hy, bytes d -> fast_tier d d = None ->
  to_ascii A cfg d deny hy DIgnore = Ok (true, d) /\ Forall lower_or_dot d.
Proof.
  intros A cfg d deny hy Hb H. split; [exact (to_ascii_fast A cfg d deny hy H)|exact (fast_tier_none d Hb d H)].
Qed.
Check C10_ascii_partial : forall A cfg d deny hy, bytes d -> fast_tier d d = None ->
  to_ascii A cfg d deny hy DIgnore = Ok (true, d) /\ Forall lower_or_dot d.
Print Assumptions C10_ascii_partial.

(* ASCII / lower case / deny-list-free, ALL inputs, every option combination, every deny list the API can build.
   Only premise about the adapter: NvNoTrunc A = "normalize_validate never returns a proper prefix of its argument"
   (forall l t, l = normalize_validate A l ++ t -> t = []).  No premise about Punycode, none about to_ascii. *)
Theorem C10_ascii : forall A cfg, NvNoTrunc A -> forall d deny hy dns b r, bytes d -> valid_deny deny ->
  to_ascii A cfg d deny hy dns = Ok (b, r) ->
  Forall (fun c => c < 128 /\ is_upper c = false /\ deny_member deny c = false) r.
Proof. exact c10_ascii_under_notrunc. Qed.
Check C10_ascii : forall A cfg, NvNoTrunc A -> forall d deny hy dns b r, bytes d -> valid_deny deny ->
  to_ascii A cfg d deny hy dns = Ok (b, r) ->
  Forall (fun c => c < 128 /\ is_upper c = false /\ deny_member deny c = false) r.
Print Assumptions C10_ascii.

Theorem C10_ascii_rel : forall A cfg, NvNoTrunc A -> C10_ascii_statement A cfg.
Proof. exact c10_ascii_under_notrunc. Qed.
Check C10_ascii_rel : forall A cfg, NvNoTrunc A -> C10_ascii_statement A cfg.
Print Assumptions C10_ascii_rel.

(* the premise cannot be dropped: with an adapter whose normalize_validate truncates, to_ascii(STD3) returns
   "xn--_-9fa" (borrowed) although '_' is in the STD3 deny list - after_punycode_decode compares the normalised
   and the decoded text by zip, without a length check *)
Theorem C10_ascii_unconditional_refuted : exists A cfg, ~ C10_ascii_statement A cfg.
Proof. exact c10_ascii_unconditional_refuted. Qed.
Check C10_ascii_unconditional_refuted : exists A cfg, ~ C10_ascii_statement A cfg.
Print Assumptions C10_ascii_unconditional_refuted.

Theorem C10_ascii_witness :
  to_ascii trunc1 true W_C10_trunc DENY_STD3 HAllow DVerify = Ok (true, W_C10_trunc) /\
  deny_member DENY_STD3 95 = true /\
  to_ascii toy true W_C10_trunc DENY_STD3 HAllow DVerify = Err.
Proof. exact w_c10_trunc. Qed.
Check C10_ascii_witness :
  to_ascii trunc1 true W_C10_trunc DENY_STD3 HAllow DVerify = Ok (true, W_C10_trunc) /\
  deny_member DENY_STD3 95 = true /\
  to_ascii toy true W_C10_trunc DENY_STD3 HAllow DVerify = Err.
Print Assumptions C10_ascii_witness.

(* every deny list the API can build (STD3, or any AsciiDenyList::new value) contains A-Z and none of a-z 0-9 - . *)
Theorem C10_valid_deny : forall deny, valid_deny deny ->
  (forall b, is_upper b = true -> deny_member deny b = true) /\
  (forall c, is_lower c || is_digit c || (c =? 45) || (c =? 46) = true -> deny_member deny c = false).
Proof. exact valid_deny_facts. Qed.
Check C10_valid_deny : forall deny, valid_deny deny ->
  (forall b, is_upper b = true -> deny_member deny b = true) /\
  (forall c, is_lower c || is_digit c || (c =? 45) || (c =? 46) = true -> deny_member deny c = false).
Print Assumptions C10_valid_deny.

(* on ASCII text has_punycode_prefix accepts only the sixteen spellings of xn-- (this is XnPrefixSpec, the premise of
   C11_redisc).  The converse, each of the sixteen is accepted, is xn_prefix_conv of Proofs/Idna_C10b_AsciiWalk.v *)
Theorem C10_xn_prefix : forall ascii, Forall (fun b => b < 128) ascii -> has_punycode_prefix ascii = true ->
  exists a b r, ascii = a :: b :: 45 :: 45 :: r /\ (a = 120 \/ a = 88) /\ (b = 110 \/ b = 78).
Proof. exact xn_prefix_spec. Qed.
Check C10_xn_prefix : forall ascii, Forall (fun b => b < 128) ascii -> has_punycode_prefix ascii = true ->
  exists a b r, ascii = a :: b :: 45 :: 45 :: r /\ (a = 120 \/ a = 88) /\ (b = 110 \/ b = 78).
Print Assumptions C10_xn_prefix.

(* the invariant behind C10_ascii, for use by C11 / C12: what the fail-fast process_inner returns *)
Theorem C10_inner_invariant : forall A cfg deny, DenyUpper deny -> LdhFree deny -> forall d, bytes d ->
  forall hy ptu b he db ap, NvNoTrunc A ->
  process_inner A cfg true hy deny d = IRes ptu b he db ap ->
  IRes ptu b he db ap = I_EXIT \/ InnerInv deny d ptu db ap.
Proof. exact process_inner_ff. Qed.
Check C10_inner_invariant : forall A cfg deny, DenyUpper deny -> LdhFree deny -> forall d, bytes d ->
  forall hy ptu b he db ap, NvNoTrunc A ->
  process_inner A cfg true hy deny d = IRes ptu b he db ap ->
  IRes ptu b he db ap = I_EXIT \/ InnerInv deny d ptu db ap.
Print Assumptions C10_inner_invariant.

(* the built-in deny lists contain the upper-case letters (masks of Gen/Tables.v, generated from the crate source) *)
Theorem C10_deny_upper : DenyUpper DENY_EMPTY /\ DenyUpper DENY_STD3 /\ DenyUpper DENY_URL.
Proof. exact deny_upper_builtin. Qed.
Check C10_deny_upper : DenyUpper DENY_EMPTY /\ DenyUpper DENY_STD3 /\ DenyUpper DENY_URL.
Print Assumptions C10_deny_upper.

(* constants of Gen/Tables.v: DNS limits 253 / 63, Punycode caps 2000 / 1000 *)
Theorem C10_limits :
  T_IDNA_DNS_TOTAL = 253 /\ T_IDNA_DNS_LABEL = 63 /\ T_IDNA_DECODE_MAX = 2000 /\ T_IDNA_ENCODE_MAX = 1000.
Proof. exact idna_limits. Qed.
Check C10_limits :
  T_IDNA_DNS_TOTAL = 253 /\ T_IDNA_DNS_LABEL = 63 /\ T_IDNA_DECODE_MAX = 2000 /\ T_IDNA_ENCODE_MAX = 1000.
Print Assumptions C10_limits.

(* deny-list masks of Gen/Tables.v: upper case, glyphless, the LDH complement, the dot, the URL and EMPTY lists *)
Theorem C10_masks :
  T_IDNA_UPPER_MASK = mask_of is_upper /\
  T_IDNA_GLYPHLESS_MASK = mask_of (fun b => (b <=? 32) || (b =? 127)) /\
  T_IDNA_LDH_MASK = mask_of (fun b => negb (is_lower b || is_digit b || (b =? 45) || (b =? 46))) /\
  T_IDNA_DOT_MASK = N.shiftl 1 46 /\
  T_IDNA_URL_GLYPHLESS = true /\ T_IDNA_URL_LIST = [37; 35; 47; 58; 60; 62; 63; 64; 91; 92; 93; 94; 124] /\
  T_IDNA_EMPTY_GLYPHLESS = false /\ T_IDNA_EMPTY_LIST = [].
Proof. exact idna_masks. Qed.
Check C10_masks :
  T_IDNA_UPPER_MASK = mask_of is_upper /\
  T_IDNA_GLYPHLESS_MASK = mask_of (fun b => (b <=? 32) || (b =? 127)) /\
  T_IDNA_LDH_MASK = mask_of (fun b => negb (is_lower b || is_digit b || (b =? 45) || (b =? 46))) /\
  T_IDNA_DOT_MASK = N.shiftl 1 46 /\
  T_IDNA_URL_GLYPHLESS = true /\ T_IDNA_URL_LIST = [37; 35; 47; 58; 60; 62; 63; 64; 91; 92; 93; 94; 124] /\
  T_IDNA_EMPTY_GLYPHLESS = false /\ T_IDNA_EMPTY_LIST = [].
Print Assumptions C10_masks.

Example C10_premises_hold :
  NvNoTrunc toy /\ valid_deny DENY_URL /\ bytes [65; 98; 46; 99] /\
  to_ascii toy true [65; 98; 46; 99] DENY_URL HAllow DVerify = Ok (false, [97; 98; 46; 99]) /\
  to_ascii toy true [97; 98; 46; 99; 46] DENY_URL HAllow DVerify = Err /\
  to_ascii toy true [97; 98; 46; 99; 46] DENY_URL HAllow DVerifyAllowRootDot = Ok (true, [97; 98; 46; 99; 46]).
Proof.
  split; [exact toy_notrunc|]. split; [right; exists T_IDNA_URL_GLYPHLESS, T_IDNA_URL_LIST; reflexivity|].
  split; [repeat constructor; unfold is_byte; lia|]. vm_compute. repeat split; reflexivity.
Qed.

Example C10_config_premises_hold :
  usv_list [65; 223; 46; 99] /\
  config_to_ascii toy true {| use_std3_ascii_rules := true; transitional_processing := true;
                              cfg_verify_dns_length := true; cfg_check_hyphens := true |} [65; 223; 46; 99]
  = Ok [97; 115; 115; 46; 99].
Proof. split; [repeat constructor; unfold is_usv; lia|vm_compute; reflexivity]. Qed.
