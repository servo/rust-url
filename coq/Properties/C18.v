(* Properties/C18.v - forgiving base64.  Statements of property C18, each closed by `exact` from a lemma of
   Proofs/C18_*.v; the example C18_nonvacuous is computed. *)
From RU Require Import Base.Prelude Gen.Tables Model.Base64 Spec.Infra
  Proofs.C18_Table Proofs.C18_Machine Proofs.C18_Body Proofs.C18_Spec Proofs.C18_BodyRef.

(* the regenerated table is the RFC 4648 alphabet (Table 1, as the string in Spec/Infra.v and in closed
   form A-Z a-z 0-9 + /), every other entry is the negative sentinel -1 (in particular whitespace and
   '='); the byte lists the code matches on are Infra's ASCII whitespace, '=', and % # TAB LF CR *)
Theorem C18_table :
  length T_B64_TABLE = 256%nat
  /\ (forall b, b64_value b = match alphabet_index b with Some v => Z.of_N v | None => (-1)%Z end)
  /\ (forall c, alphabet_index c =
                if is_upper c then Some (c - 65) else if is_lower c then Some (c - 71)
                else if is_digit c then Some (c + 4) else if c =? 43 then Some 62
                else if c =? 47 then Some 63 else None)
  /\ (forall b, memb b T_B64_WS = is_ascii_whitespace b)
  /\ T_B64_PAD = 61
  /\ (forall b, memb b T_BODY_SPECIAL = (b =? 37) || (b =? 35) || (b =? 9) || (b =? 10) || (b =? 13)).
Proof.
  exact (conj table_length (conj b64_value_spec (conj alphabet_index_closed_form
        (conj ws_list_is_infra (conj pad_is_equals body_special_list))))).
Qed.
Print Assumptions C18_table.

(* value and verdict of decode_to_vec are those of the Infra algorithm, for every input *)
Theorem C18_spec : forall input,
  match decode_to_vec input with inl v => Some v | inr _ => None end = forgiving_base64_decode input.
Proof. exact decode_to_vec_is_infra. Qed.
Check C18_spec : forall input,
  match decode_to_vec input with inl v => Some v | inr _ => None end = forgiving_base64_decode input.
Print Assumptions C18_spec.

(* round trip: any s whose non-whitespace code points spell the RFC 4648 encoding of x, padded or not *)
Theorem C18_rt : forall pad x s,
  bytes x -> filter (fun c => negb (is_ascii_whitespace c)) s = std_encode pad x -> decode_to_vec s = inl x.
Proof. exact decode_std_encode. Qed.
Check C18_rt : forall pad x s,
  bytes x -> filter (fun c => negb (is_ascii_whitespace c)) s = std_encode pad x -> decode_to_vec s = inl x.
Print Assumptions C18_rt.

(* the same with "whitespace inserted anywhere" as an inductive relation *)
Theorem C18_rt_inserted : forall pad x s,
  bytes x -> ws_inserted (std_encode pad x) s -> decode_to_vec s = inl x.
Proof. exact decode_ws_inserted. Qed.
Check C18_rt_inserted : forall pad x s,
  bytes x -> ws_inserted (std_encode pad x) s -> decode_to_vec s = inl x.
Print Assumptions C18_rt_inserted.

(* chunking: for EVERY sink closure (state W, error E), feeding the chunks one by one then finish
   leaves the sink in the same state and returns the same verdict (same error variant) as feeding
   the concatenation at once.  With the recording sink the state is the sequence of write calls:
   the calls themselves, not only their concatenation, are independent of the chunking. *)
Theorem C18_chunks : forall (W E : Type) (write : W -> list N -> W * option E) (w : W) (cs : list (list N)),
  run_chunks write w cs = run write w (concat cs).
Proof. exact (@run_chunks_concat). Qed.
Check C18_chunks : forall (W E : Type) (write : W -> list N -> W * option E) (w : W) (cs : list (list N)),
  run_chunks write w cs = run write w (concat cs).
Print Assumptions C18_chunks.

Theorem C18_chunks_calls : forall k cs,
  run_chunks kwrite (ksink_new k) cs = run kwrite (ksink_new k) (concat cs).
Proof. exact (fun k cs => run_chunks_concat kwrite (ksink_new k) cs). Qed.
Print Assumptions C18_chunks_calls.

(* the sink clause.  `free` is the run against the sink that never fails, `failing` the run against
   the sink that fails at its k-th call (k >= 1); both record the delivered chunks.
   This is Proofs/C18_Machine.sink_law written out (the same text, with the cases commented). *)
Definition C18_sink_clause {V : Type} (write_error : V) (free failing : ksink * V) (k : nat) : Prop :=
  (* fault-free: every call is delivered *)
  ks_calls (fst free) = length (ks_out (fst free)) /\
  if (k <=? ks_calls (fst free))%nat
  then (* the k-th call happens: exactly the first k-1 chunks, the write error, and no further call *)
       ks_out (fst failing) = firstn (k - 1) (ks_out (fst free)) /\ snd failing = write_error
       /\ ks_calls (fst failing) = k
  else (* fewer than k calls: nothing changes *)
       ks_out (fst failing) = ks_out (fst free) /\ snd failing = snd free
       /\ ks_calls (fst failing) = ks_calls (fst free).

Theorem C18_sink : forall input k, (1 <= k)%nat ->
  (* Decoder: feed; finish *)
  C18_sink_clause (Some (WriteError tt))
    (run kwrite (ksink_new None) input) (run kwrite (ksink_new (Some k)) input) k
  (* decode_without_base64 *)
  /\ C18_sink_clause (BodyErr tt)
    (decode_without_base64 kwrite (ksink_new None) input)
    (decode_without_base64 kwrite (ksink_new (Some k)) input) k
  (* decode_with_base64 *)
  /\ C18_sink_clause (BodyErr (WriteError tt))
    (decode_with_base64 kwrite (ksink_new None) input)
    (decode_with_base64 kwrite (ksink_new (Some k)) input) k
  (* DataUrl::decode, both branches *)
  /\ (forall base64, C18_sink_clause (BodyErr (WriteError tt))
    (data_url_decode kwrite base64 (ksink_new None) input)
    (data_url_decode kwrite base64 (ksink_new (Some k)) input) k).
Proof.
  exact (fun input k Hk => conj (run_sink_law input k Hk) (conj (dwo_sink_law input k Hk)
          (conj (dwb_sink_law input k Hk) (fun b => data_url_decode_sink_law b input k Hk)))).
Qed.
Print Assumptions C18_sink.

(* stronger, for EVERY sink closure: the decoder's interaction with the sink is "attempt a list of
   chunks that depends on the input only, in order, stop at the first failure and return it" *)
Theorem C18_any_sink : forall (W E : Type) (write : W -> list N -> W * option E) (w : W) (input : list N),
  run write w input =
  match attempt write w (fst (prun input)) with
  | (w', None) => (w', option_map InvalidBase64 (snd (prun input)))
  | (w', Some e) => (w', Some (WriteError e))
  end.
Proof. exact (@run_exec). Qed.
Print Assumptions C18_any_sink.

(* decode_with_base64 is the Decoder run on the concatenation of what decode_without_base64 writes
   (which never takes the slice-panic branch) *)
Theorem C18_body_b64 : forall (W E : Type) (write : W -> list N -> W * option E) (w : W) (body : list N),
  exists fragment, snd (pdwo body) = Some fragment /\
  decode_with_base64 write w body =
  let (w', v) := run write w (concat (fst (pdwo body))) in
  (w', match v with None => BodyOk fragment | Some e => BodyErr e end).
Proof. exact (@dwb_is_run). Qed.
Print Assumptions C18_body_b64.

(* what the "fault-free output" of the body decoders is (Proofs/C18_BodyRef.v body_ref: the body up to
   the first '#', ASCII tab / newlines dropped, "%XY" with two hex digits contiguous in the text
   replaced by the byte; the fragment is what follows the '#'): decode_without_base64 delivers exactly
   that, decode_with_base64 its Infra forgiving-base64 decode *)
Theorem C18_body_output : forall body,
  (let (s, r) := decode_without_base64 kwrite (ksink_new None) body in
   concat (ks_out s) = fst (body_ref body) /\ r = BodyOk (snd (body_ref body)))
  /\
  (let (s, r) := decode_with_base64 kwrite (ksink_new None) body in
   match forgiving_base64_decode (fst (body_ref body)) with
   | Some v => concat (ks_out s) = v /\ r = BodyOk (snd (body_ref body))
   | None => exists e, r = BodyErr (InvalidBase64 e)
   end).
Proof. exact (fun body => conj (dwo_fault_free body) (dwb_fault_free body)). Qed.
Print Assumptions C18_body_output.

(* non-vacuity: "YWJj ZA==" with whitespace decodes to "abcd"; the failing sink is reached; 256 '=' are refused *)
Example C18_nonvacuous :
  decode_to_vec [32; 89; 87; 74; 106; 10; 90; 65; 61; 61] = inl [97; 98; 99; 100]
  /\ std_encode true [97; 98; 99; 100] = [89; 87; 74; 106; 90; 65; 61; 61]
  /\ forgiving_base64_decode [89; 87; 74; 106; 90; 65] = Some [97; 98; 99; 100]
  /\ run_chunks kwrite (ksink_new (Some 2%nat)) [[89; 87]; [74; 106; 90]; [65; 61; 61]]
     = (mk_ksink (Some 2%nat) 2 [[97; 98; 99]], Some (WriteError tt))
  /\ decode_to_vec (65 :: 65 :: repeat 61 256) = inr PaddingErr
  /\ fst (decode_without_base64 kwrite (ksink_new None) [97; 37; 52; 49; 9; 98; 35; 102])
     = mk_ksink None 3 [[97]; [65]; [98]].
Proof. vm_compute. repeat split. Qed.
