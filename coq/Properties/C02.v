(* Properties/C02.v - every reachable Url is a fixpoint of serialize-then-parse: Url::parse(u.as_str()) == u.
   Vocabulary (DESIGN.md B.5).  L1: a parse / join result has a canonical form; L2: a mutator keeps the canonical
   form; L3: a record of canonical form re-parses to itself.  Classes of records: (i) opaque path, (ii) no authority
   and a '/'-led path, (iii) non-special scheme with authority, (iv) special non-file scheme, (v) file.  F-Cxx-n: the
   findings about rust-url listed in DESIGN.md; Known_F_Cxx_n: the computable class of steps that exhibit one.
   The statement comes over four history quantifiers.  C02_statement_v1 (Reachable, HostOK): HostOK is not met by
   url::Host (A.1).  C02_statement (Reachable2, HostOK2) and C02_statement3 (Reachable3 = Reachable2 + query_pairs_mut
   sessions): refuted, C02_statement_refuted / C02_statement3_refuted (L.7), their quantifiers miss the class F-C07-8.
   C02_statement4 (Reachable4, section M): neither proved nor refuted; proved for the histories ReachC9
   (C02_reach_partial9, R.6; the end of R.6 says which steps of Reachable4 are outside ReachC9).
   Sections, in this order: A statements and host hypotheses; B the encoders; C D G H I: L1 + L3 for classes (i)-(iv)
   parsed without a base; J K L M N O: L2 for the setters, query_pairs_mut, path_segments_mut, joins and any encoding
   override on non-file records, with the reach theorems C02_reach_partial .. C02_reach_partial6 over ReachC .. ReachC6;
   P Q R: class (v), C02_reach_partial7 / 8; F: every excluded class contains a history that is not a fixpoint;
   R.6: C02_reach_partial9. *)
From Coq Require Import String.
From RU Require Import Base.Prelude Base.Utf8 Base.Utf8Facts Model.AsciiSet Gen.Tables
  Model.PercentEncoding Model.HostT Model.UrlRecord Model.Parser Model.Setters Model.WF
  Proofs.ListN Proofs.C14_Enc Proofs.C02_Enc Proofs.C02_Parts Proofs.C02_Opaque Proofs.C02_Path Proofs.C02_PathL1
  Proofs.C02_Reach Proofs.C02_AuthParts Proofs.C02_Auth Proofs.C02_AuthWf Proofs.C02_PathSp Proofs.C02_AuthSp
  Proofs.C02_AuthMain Proofs.C02_Hist Proofs.C02_HistInst Proofs.C02_SetQF Proofs.C02_Canon Proofs.C02_SetPort
  Proofs.C02_JoinTail Proofs.C02_ReachPartial.
From RU Require Import Model.Host Proofs.C09_Host Proofs.C16_RT6Model.
From RU Require Import Model.FormUrlencoded Model.QueryPairs Proofs.C02_Form Proofs.C02_SetCred Proofs.C02_SetCredCanon Proofs.C02_QPort Proofs.C02_Reach3.
From RU Require Proofs.C15_Ser.
From RU Require Import Proofs.C02_SetHostFrame Proofs.C02_SetHostCanon Proofs.C02_SetScheme Proofs.C02_PathSetter Proofs.C02_SetPath Proofs.C02_Reach4.
From RU Require Import Proofs.C02_Stmt4 Proofs.C02_QHost Proofs.C02_SetHostNone Proofs.C02_SetPathNoAuth Proofs.C02_SetPathOpaque Proofs.C02_Reach5.
From RU Require Import Proofs.C02_JoinAbs Proofs.C02_JoinPath Proofs.C02_Segments Proofs.C02_SegmentsCanon Proofs.C02_Reach6.
From RU Require Import Proofs.C02_Ovr Proofs.C02_Reach7.
From RU Require Import Proofs.C02_File Proofs.C02_FileL1 Proofs.C02_FileCanon.
From RU Require Import Proofs.C02_FileParse Proofs.C02_FileHost Proofs.C02_FileSet Proofs.C02_Reach8.
From RU Require Import Proofs.C02_FileOps Proofs.C02_FileJoin Proofs.C02_PathSetter Proofs.C02_FileSetPath Proofs.C02_Reach9.
From RU Require Model.FilePath Proofs.C20_Path Proofs.C02_FilePathConv.
Open Scope string_scope.
Open Scope N_scope.
Open Scope list_scope.

(* A. The statements and the host hypotheses.
   C02_statement (Proofs/C02_Hist.v): Reachable2 = results of parse / join and of every mutator of Model/Setters.v
   (19 operations incl. path_segments_mut sessions and the quirks setters) with arbitrary arguments, outside the computable
   classes Known_F_C03_5, Known_F_C02_3, Known_F_C02_2, Known_F_C02_8, Known_F_C02_4, Known_F_C02_9,
   Known_file_drive; host functions constrained by HostOK2 = HostRT /\ host_above /\ ip_clause.
   False: C02_statement_refuted (L.7). *)
Definition C02_full_statement : Prop := C02_statement.

(* C02_statement_v1 (Proofs/C02_Reach.v): the same over Reachable (no class Known_F_C02_9) under HostOK.  HostOK is not
   met by url::Host (A.1), so it says nothing about the real host functions; read for them it is false (F-C02-9) *)
Definition C02_full_statement_v1 : Prop := C02_statement_v1.

(* A.1  HostOK is refuted by each of two facts, both true of url::Host ... *)
Theorem C02_HostOK_old_unsat : forall hp hpo hd,
  hp [] <> Ok (HDomain []) \/ (exists a, a < 4294967296 /\ hpo (hd (HIpv4 a)) <> Ok (HIpv4 a)) ->
  ~ HostOK hp hpo hd.
Proof. exact HostOK_old_unsat. Qed.
Check C02_HostOK_old_unsat : forall hp hpo hd,
  hp [] <> Ok (HDomain []) \/ (exists a, a < 4294967296 /\ hpo (hd (HIpv4 a)) <> Ok (HIpv4 a)) ->
  ~ HostOK hp hpo hd.
Print Assumptions C02_HostOK_old_unsat.

(* ... so no instance of the host model (Model/Host.v, any IDNA function) satisfies it *)
Theorem C02_HostOK_old_unsat_model : forall idna, ~ HostOK (host_parse idna) host_parse_opaque host_display.
Proof. exact HostOK_old_unsat_model. Qed.
Check C02_HostOK_old_unsat_model : forall idna, ~ HostOK (host_parse idna) host_parse_opaque host_display.
Print Assumptions C02_HostOK_old_unsat_model.

(* A.2  HostOK2 follows from HostOK and host_above, and is met by the host model for every IDNA function satisfying
   IdnaOK (C09); IdnaOK has an instance *)
Theorem C02_HostOK_old_implies_new : forall hp hpo hd, HostOK hp hpo hd -> host_above hp hpo hd -> HostOK2 hp hpo hd.
Proof. exact HostOK_old_implies_new. Qed.
Print Assumptions C02_HostOK_old_implies_new.

Theorem C02_HostOK2_model : forall idna, IdnaOK idna -> HostOK2 (host_parse idna) host_parse_opaque host_display.
Proof. exact HostOK2_model. Qed.
Check C02_HostOK2_model : forall idna, IdnaOK idna ->
  HostRT (host_parse idna) host_parse_opaque host_display /\ host_above (host_parse idna) host_parse_opaque host_display
  /\ ip_clause (host_parse idna) host_parse_opaque host_display.
Print Assumptions C02_HostOK2_model.

Example C02_HostOK2_inhabited : IdnaOK idna_clean /\ HostOK2 (host_parse idna_clean) host_parse_opaque host_display.
Proof. exact (conj idna_clean_ok HostOK2_inhabited). Qed.

(* A.3  Reachable2 is a restriction of Reachable *)
Theorem C02_Reachable2_old : forall dbg hp hpo hd u, Reachable2 dbg hp hpo hd u -> Reachable dbg hp hpo hd u.
Proof. exact Reachable2_old. Qed.
Print Assumptions C02_Reachable2_old.

(* B. the encoder is idempotent on its own output *)
Theorem C02_encode_clean : forall S t, clean S t = true -> encode S t = t.
Proof. exact encode_clean. Qed.
Check C02_encode_clean : forall S t, forallb (fun b => negb (should_encode S b)) t = true -> encode S t = t.
Print Assumptions C02_encode_clean.

Theorem C02_encode_idempotent_generic : forall S bs, set_stable S = true -> bytes bs ->
  encode S (encode S bs) = encode S bs.
Proof. exact encode_idempotent. Qed.
Print Assumptions C02_encode_idempotent_generic.

Theorem C02_encode_idempotent_CONTROLS : forall bs, bytes bs ->
  encode T_CONTROLS (encode T_CONTROLS bs) = encode T_CONTROLS bs.
Proof. exact (fun bs => encode_idempotent T_CONTROLS bs stable_CONTROLS). Qed.
Check C02_encode_idempotent_CONTROLS : forall bs, bytes bs -> encode T_CONTROLS (encode T_CONTROLS bs) = encode T_CONTROLS bs.
Print Assumptions C02_encode_idempotent_CONTROLS.

Theorem C02_encode_idempotent_FRAGMENT : forall bs, bytes bs ->
  encode T_FRAGMENT (encode T_FRAGMENT bs) = encode T_FRAGMENT bs.
Proof. exact (fun bs => encode_idempotent T_FRAGMENT bs stable_FRAGMENT). Qed.
Check C02_encode_idempotent_FRAGMENT : forall bs, bytes bs -> encode T_FRAGMENT (encode T_FRAGMENT bs) = encode T_FRAGMENT bs.
Print Assumptions C02_encode_idempotent_FRAGMENT.

Theorem C02_encode_idempotent_PATH : forall bs, bytes bs ->
  encode T_PATH (encode T_PATH bs) = encode T_PATH bs.
Proof. exact (fun bs => encode_idempotent T_PATH bs stable_PATH). Qed.
Check C02_encode_idempotent_PATH : forall bs, bytes bs -> encode T_PATH (encode T_PATH bs) = encode T_PATH bs.
Print Assumptions C02_encode_idempotent_PATH.

Theorem C02_encode_idempotent_USERINFO : forall bs, bytes bs ->
  encode T_USERINFO (encode T_USERINFO bs) = encode T_USERINFO bs.
Proof. exact (fun bs => encode_idempotent T_USERINFO bs stable_USERINFO). Qed.
Check C02_encode_idempotent_USERINFO : forall bs, bytes bs -> encode T_USERINFO (encode T_USERINFO bs) = encode T_USERINFO bs.
Print Assumptions C02_encode_idempotent_USERINFO.

Theorem C02_encode_idempotent_QUERY : forall bs, bytes bs ->
  encode T_QUERY (encode T_QUERY bs) = encode T_QUERY bs.
Proof. exact (fun bs => encode_idempotent T_QUERY bs stable_QUERY). Qed.
Check C02_encode_idempotent_QUERY : forall bs, bytes bs -> encode T_QUERY (encode T_QUERY bs) = encode T_QUERY bs.
Print Assumptions C02_encode_idempotent_QUERY.

Theorem C02_encode_idempotent_SPECIAL_QUERY : forall bs, bytes bs ->
  encode T_SPECIAL_QUERY (encode T_SPECIAL_QUERY bs) = encode T_SPECIAL_QUERY bs.
Proof. exact (fun bs => encode_idempotent T_SPECIAL_QUERY bs stable_SPECIAL_QUERY). Qed.
Check C02_encode_idempotent_SPECIAL_QUERY : forall bs, bytes bs ->
  encode T_SPECIAL_QUERY (encode T_SPECIAL_QUERY bs) = encode T_SPECIAL_QUERY bs.
Print Assumptions C02_encode_idempotent_SPECIAL_QUERY.

(* the two sets of the path_segments_mut editor contain '%': not idempotent, by design *)
Theorem C02_segment_sets_not_stable :
  set_stable T_PATH_SEGMENT = false /\ set_stable T_SPECIAL_PATH_SEGMENT = false
  /\ encode T_PATH_SEGMENT (encode T_PATH_SEGMENT [32]) <> encode T_PATH_SEGMENT [32].
Proof. split; [exact (proj1 unstable_PATH_SEGMENT)|]. split; [exact (proj2 unstable_PATH_SEGMENT)|]. vm_compute. discriminate. Qed.
Print Assumptions C02_segment_sets_not_stable.

(* encoded text contains no tab / LF / CR: re-parsing sees no ignorable character *)
Theorem C02_encode_no_ignorable : forall S bs,
  In S [T_CONTROLS; T_FRAGMENT; T_PATH; T_USERINFO; T_QUERY; T_SPECIAL_QUERY] -> bytes bs ->
  forallb (fun c => negb (is_tnl c)) (encode S bs) = true.
Proof.
  intros S bs HS Hb. apply encode_no_tnl; [|exact Hb].
  cbn [In] in HS. destruct HS as [<-|[<-|[<-|[<-|[<-|[<-|[]]]]]]];
    [exact tnl_CONTROLS | exact tnl_FRAGMENT | exact tnl_PATH | exact tnl_USERINFO | exact tnl_QUERY | exact tnl_SPECIAL_QUERY].
Qed.
Check C02_encode_no_ignorable : forall S bs,
  In S [T_CONTROLS; T_FRAGMENT; T_PATH; T_USERINFO; T_QUERY; T_SPECIAL_QUERY] -> bytes bs ->
  forallb (fun c => negb (is_tnl c)) (encode S bs) = true.
Print Assumptions C02_encode_no_ignorable.

(* Input::new trims nothing from text whose first and last characters are above U+0020, and what it
   hands to the parser always has that shape *)
Theorem C02_trim_identity : forall l,
  (match l with [] => True | c :: _ => is_c0_or_space c = false end) ->
  (match rev l with [] => True | c :: _ => is_c0_or_space c = false end) ->
  input_new_trim_c0 l = l.
Proof. intros l H1 H2. apply trim_c0_id. split; assumption. Qed.
Print Assumptions C02_trim_identity.

(* C. class (i), opaque-path URLs parsed without a base: L1 and L3.
   The class, decided on the input: scheme ':' rest with a non-special scheme and rest not starting
   with '/' (after removal of tab / LF / CR) *)
Definition opaque_input (input : list N) : bool :=
  match parse_scheme CUrlParser (input_new_trim_c0 input) with
  | Some (sch, rem) =>
      scheme_type_eqb (scheme_type_of sch) STNotSpecial
      && match inp_split_prefix_char 47 rem with None => true | Some _ => false end
  | None => false
  end.

Lemma opaque_input_inv input : opaque_input input = true ->
  exists sch rem, parse_scheme CUrlParser (input_new_trim_c0 input) = Some (sch, rem)
                  /\ scheme_type_of sch = STNotSpecial /\ inp_split_prefix_char 47 rem = None.
Proof.
  unfold opaque_input. destruct (parse_scheme CUrlParser (input_new_trim_c0 input)) as [[sch rem]|]; [|discriminate].
  intros H. apply andb_true_iff in H. destruct H as [H1 H2]. exists sch, rem. split; [reflexivity|]. split.
  - destruct (scheme_type_of sch); try discriminate. reflexivity.
  - destruct (inp_split_prefix_char 47 rem); [discriminate | reflexivity].
Qed.

(* L3 + L1 for the class: the record re-parses to itself (same serialization, offsets, host kind,
   port); the serialization is ASCII, so the receiver's code points are the bytes *)
Theorem C02_reparse_opaque : forall dbg hp hpo hd ovr input u,
  usv_list input -> opaque_input input = true ->
  parse_url dbg hp hpo hd ovr None input = POk u ->
  Fixpoint_of_reparse dbg hp hpo hd u /\ ascii (ser u) /\ cannot_be_a_base u = Some true.
Proof.
  intros dbg hp hpo hd ovr input u Hu Hc Hp.
  destruct (opaque_input_inv input Hc) as (sch & rem & Hs & Hns & H47).
  destruct (parse_opaque_out dbg hp hpo hd ovr input sch rem u Hu Hs Hns H47 Hp) as (P & q & f & K & ->).
  pose proof (opaque_ser_ascii sch P q f K) as Ha.
  split; [|split; [exact Ha | exact (opaque_url_cbb sch P q f K)]].
  unfold Fixpoint_of_reparse, reparse. cbn [ser opaque_url] in *. rewrite utf8_lossy_ascii by exact Ha.
  exact (reparse_opaque_form dbg hp hpo hd None sch P q f K).
Qed.
Check C02_reparse_opaque : forall dbg hp hpo hd ovr input u,
  usv_list input -> opaque_input input = true ->
  parse_url dbg hp hpo hd ovr None input = POk u ->
  parse_url dbg hp hpo hd None None (utf8_lossy (ser u)) = POk u /\ ascii (ser u) /\ cannot_be_a_base u = Some true.
Print Assumptions C02_reparse_opaque.

(* L1 restricted to the class: the structural invariant the C03 theorems assume *)
Theorem C02_L1_opaque : forall dbg hp hpo hd ovr input u,
  usv_list input -> opaque_input input = true ->
  parse_url dbg hp hpo hd ovr None input = POk u -> wf_b u = true.
Proof.
  intros dbg hp hpo hd ovr input u Hu Hc Hp.
  destruct (opaque_input_inv input Hc) as (sch & rem & Hs & Hns & H47).
  destruct (parse_opaque_out dbg hp hpo hd ovr input sch rem u Hu Hs Hns H47 Hp) as (P & q & f & K & ->).
  exact (opaque_url_wf sch P q f K).
Qed.
Check C02_L1_opaque : forall dbg hp hpo hd ovr input u,
  usv_list input -> opaque_input input = true ->
  parse_url dbg hp hpo hd ovr None input = POk u -> wf_b u = true.
Print Assumptions C02_L1_opaque.

(* the canonical form itself: every text of that shape is a fixpoint (L3 alone) *)
Theorem C02_L3_opaque_form : forall dbg hp hpo hd ovr sch P q f, opaque_ok sch P q f ->
  parse_url dbg hp hpo hd ovr None (opaque_ser sch P q f) = POk (opaque_url sch P q f).
Proof. exact reparse_opaque_form. Qed.
Print Assumptions C02_L3_opaque_form.

(* non-vacuity: about:blank, "a:b c #f" and "mailto:x@y?subject=%41" are in the class *)
Example C02_opaque_inhabited :
  opaque_input (B "about:blank") = true /\ opaque_input (B "  a:b c #f ") = true
  /\ opaque_input (B "mailto:x@y?subject=%41") = true /\ opaque_input (B "a:/b") = false
  /\ opaque_input (B "http:b") = false.
Proof. vm_compute. repeat split. Qed.

(* D. class (ii), non-special URLs without authority and with a '/'-led path, parsed without a base.
   The class, decided on the input: scheme ':' '/' rest, non-special scheme, rest not starting with '/' *)
Definition noauth_input (input : list N) : bool :=
  match parse_scheme CUrlParser (input_new_trim_c0 input) with
  | Some (sch, rem) =>
      scheme_type_eqb (scheme_type_of sch) STNotSpecial
      && match inp_split_prefix_str s_ss rem with None => true | Some _ => false end
      && match inp_split_prefix_char 47 rem with Some _ => true | None => false end
  | None => false
  end.

Lemma noauth_input_inv input : noauth_input input = true ->
  exists sch rem rem', parse_scheme CUrlParser (input_new_trim_c0 input) = Some (sch, rem)
    /\ scheme_type_of sch = STNotSpecial /\ inp_split_prefix_str s_ss rem = None
    /\ inp_split_prefix_char 47 rem = Some rem'.
Proof.
  unfold noauth_input. destruct (parse_scheme CUrlParser (input_new_trim_c0 input)) as [[sch rem]|]; [|discriminate].
  intros H. apply andb_true_iff in H. destruct H as [H H3]. apply andb_true_iff in H. destruct H as [H1 H2].
  destruct (inp_split_prefix_char 47 rem) as [rem'|] eqn:E47; [|discriminate].
  exists sch, rem, rem'. split; [reflexivity|]. split; [|split; [|exact E47]].
  - destruct (scheme_type_of sch); try discriminate. reflexivity.
  - destruct (inp_split_prefix_str s_ss rem); [discriminate | reflexivity].
Qed.

(* the canonical-form clauses the parser establishes for the class (DESIGN's WF S3-S7 restricted to it):
   the record is  scheme ":" ["/."] "/" seg "/" ... "/" last ["?" q] ["#" f]  with a lower-case non-special
   scheme, every segment free of '/', clean for the PATH set and not a single- or double-dot segment in any
   spelling (".", "%2e", "..", ".%2E", ...), the marker present exactly when the path starts with "//",
   query clean for QUERY, fragment clean for FRAGMENT *)
Definition canon_noauth (u : url) : Prop :=
  exists sch segs last q f, noauth_ok sch segs last q f /\ u = noauth_url sch (path_text segs last) q f.

(* L1 restricted to the class *)
Theorem C02_L1_noauth : forall dbg hp hpo hd ovr input u,
  usv_list input -> noauth_input input = true ->
  parse_url dbg hp hpo hd ovr None input = POk u ->
  canon_noauth u /\ wf_b u = true /\ ascii (ser u) /\ cannot_be_a_base u = Some false.
Proof.
  intros dbg hp hpo hd ovr input u Hu Hc Hp.
  destruct (noauth_input_inv input Hc) as (sch & rem & rem' & Hs & Hns & Hss & H47).
  destruct (parse_noauth_out dbg hp hpo hd ovr input sch rem rem' u Hu Hs Hns Hss H47 Hp) as (segs & last & q & f & K & ->).
  destruct (noauth_url_wf sch segs last q f K) as (W & C & A).
  split; [exists sch, segs, last, q, f; split; [exact K | reflexivity]|]. split; [exact W|]. split; [exact A | exact C].
Qed.
Check C02_L1_noauth : forall dbg hp hpo hd ovr input u,
  usv_list input -> noauth_input input = true ->
  parse_url dbg hp hpo hd ovr None input = POk u ->
  canon_noauth u /\ wf_b u = true /\ ascii (ser u) /\ cannot_be_a_base u = Some false.
Print Assumptions C02_L1_noauth.

(* L3 for the class: every canonical record is a fixpoint *)
Theorem C02_L3_noauth : forall dbg hp hpo hd u, canon_noauth u -> Fixpoint_of_reparse dbg hp hpo hd u.
Proof.
  intros dbg hp hpo hd u (sch & segs & last & q & f & K & ->).
  destruct (noauth_url_wf sch segs last q f K) as (_ & _ & A).
  unfold Fixpoint_of_reparse, reparse. cbn [ser noauth_url]. rewrite utf8_lossy_ascii by exact A.
  exact (reparse_noauth_form dbg hp hpo hd None sch segs last q f K).
Qed.
Check C02_L3_noauth : forall dbg hp hpo hd u, canon_noauth u ->
  parse_url dbg hp hpo hd None None (utf8_lossy (ser u)) = POk u.
Print Assumptions C02_L3_noauth.

(* L1 + L3: parse results of the class are fixpoints *)
Theorem C02_reparse_noauth : forall dbg hp hpo hd ovr input u,
  usv_list input -> noauth_input input = true ->
  parse_url dbg hp hpo hd ovr None input = POk u ->
  Fixpoint_of_reparse dbg hp hpo hd u.
Proof.
  intros dbg hp hpo hd ovr input u Hu Hc Hp.
  apply C02_L3_noauth. exact (proj1 (C02_L1_noauth dbg hp hpo hd ovr input u Hu Hc Hp)).
Qed.
Check C02_reparse_noauth : forall dbg hp hpo hd ovr input u,
  usv_list input -> noauth_input input = true ->
  parse_url dbg hp hpo hd ovr None input = POk u ->
  parse_url dbg hp hpo hd None None (utf8_lossy (ser u)) = POk u.
Print Assumptions C02_reparse_noauth.

(* the path state is the identity on canonical text (any prefix, any path_start): reusable for the
   classes with authority *)
Theorem C02_path_state_identity : forall dbg ps segs last rest ser hh,
  forallb good_seg segs = true -> good_seg last = true ->
  match rest with [] => True | c :: _ => is_qh c = true /\ is_tnl c = false end ->
  parse_path_loop dbg CUrlParser STNotSpecial ps (segs_text segs ++ last ++ rest) ser (nlen ser) [] hh
  = POk (ser ++ segs_text segs ++ last, hh, rest).
Proof. exact path_loop_canon. Qed.
Print Assumptions C02_path_state_identity.

(* non-vacuity, and %2e spellings: a:/%2e is in the class and its result a:/ has no dot segment *)
Example C02_noauth_inhabited :
  noauth_input (B "a:/x/../y/./%2e%2E/z?q#f") = true /\ noauth_input (B "web+demo:/.//not-a-host/") = true
  /\ noauth_input (B "a://h/") = false /\ noauth_input (B "a:b") = false
  /\ match toy_parse "a:/x/%2e%2E/%2e" with POk u => list_eqb (ser u) (B "a:/") | _ => false end = true
  /\ match toy_parse "a:/..//x" with POk u => list_eqb (ser u) (B "a:/.//x") && (path_start u =? 4) | _ => false end = true.
Proof. vm_compute. repeat split. Qed.

(* L1 + L3 for every parse and join result, the base of a join taken from Reachable2.  Not proved, and false for the
   reason C02_statement is (L.7): the record w10_u1 = a://:pw@/p of C02_F_C07_8_witness is in Reachable2, joined with the
   empty reference it comes back unchanged, and it does not re-parse.  Proved of parse and join results: sections G-I
   (no base, classes (iii), (iv) and the union (i)-(iv)), N and O (joins against canonical bases), Q and R (class (v)). *)
Definition C02_L3_remaining_statement : Prop :=
  forall dbg hp hpo hd, HostOK2 hp hpo hd -> forall ovr base input u,
    usv_list input -> (match base with Some b => Reachable2 dbg hp hpo hd b | None => True end) ->
    parse_url dbg hp hpo hd ovr base input = POk u -> Known_file_drive u = false ->
    Fixpoint_of_reparse dbg hp hpo hd u.

(* G. class (iii): non-special scheme, authority ("sch://..."), parsed without a base.
   Hypotheses on the host functions: HostRT = the four clauses of HostOK that concern parsing (both
   parsers are inverted by the display, the display of a parsed host is a host text, the empty host is
   displayed as nothing and the empty text is the empty opaque host) - HostOK implies it - and
   host_above = every displayed host is above U+0020 (HostOK does not say so; without it a display that
   ends in a space would be trimmed away by the re-parse: a gap of the hypothesis, not of the code).
   auth_input: decided on the input - scheme ':' '/' '/' with a non-special scheme.
   canon_auth .. STNotSpecial u: u is  scheme "://" [user [":" pw] "@"] host [":" port] path ["?" q] ["#" f],
   offsets = sums of the component lengths, host kind = kind of the host value (C02_AuthMain.v). *)
Theorem C02_L1_auth : forall dbg hp hpo hd, HostRT hp hpo hd -> forall ovr input u,
  host_above hp hpo hd -> usv_list input -> auth_input input = true ->
  parse_url dbg hp hpo hd ovr None input = POk u ->
  canon_auth hp hpo hd STNotSpecial u /\ wf_b u = true /\ ascii (ser u) /\ cannot_be_a_base u = Some false.
Proof. exact L1_auth. Qed.
Check C02_L1_auth : forall dbg hp hpo hd, HostRT hp hpo hd -> forall ovr input u,
  host_above hp hpo hd -> usv_list input -> auth_input input = true ->
  parse_url dbg hp hpo hd ovr None input = POk u ->
  canon_auth hp hpo hd STNotSpecial u /\ wf_b u = true /\ ascii (ser u) /\ cannot_be_a_base u = Some false.
Print Assumptions C02_L1_auth.

(* L3: every canonical record of the class is a fixpoint (same serialization, offsets, host kind, port) *)
Theorem C02_L3_auth : forall dbg hp hpo hd, HostRT hp hpo hd -> forall u,
  canon_auth hp hpo hd STNotSpecial u -> Fixpoint_of_reparse dbg hp hpo hd u.
Proof. exact L3_auth. Qed.
Check C02_L3_auth : forall dbg hp hpo hd, HostRT hp hpo hd -> forall u,
  canon_auth hp hpo hd STNotSpecial u -> parse_url dbg hp hpo hd None None (utf8_lossy (ser u)) = POk u.
Print Assumptions C02_L3_auth.

(* L1 + L3 under HostOK2, the hypothesis the host model meets *)
Theorem C02_reparse_auth2 : forall dbg hp hpo hd ovr input u,
  HostOK2 hp hpo hd -> usv_list input -> auth_input input = true ->
  parse_url dbg hp hpo hd ovr None input = POk u ->
  Fixpoint_of_reparse dbg hp hpo hd u /\ wf_b u = true /\ canon_auth hp hpo hd STNotSpecial u.
Proof. exact reparse_auth_HostOK2. Qed.
Check C02_reparse_auth2 : forall dbg hp hpo hd ovr input u,
  HostOK2 hp hpo hd -> usv_list input -> auth_input input = true ->
  parse_url dbg hp hpo hd ovr None input = POk u ->
  parse_url dbg hp hpo hd None None (utf8_lossy (ser u)) = POk u /\ wf_b u = true /\ canon_auth hp hpo hd STNotSpecial u.
Print Assumptions C02_reparse_auth2.

(* L1 + L3 under HostOK.  No host functions in the development satisfy HostOK: not url::Host
   (C02_HostOK_old_unsat_model), not the example ex_hp / ex_hd of the non-vacuity statement below (C02_HostOK_old_unsat,
   second disjunct at a = 0).  C02_reparse_auth2 is the form whose hypothesis has an instance *)
Theorem C02_reparse_auth : forall dbg hp hpo hd ovr input u,
  HostOK hp hpo hd -> host_above hp hpo hd -> usv_list input -> auth_input input = true ->
  parse_url dbg hp hpo hd ovr None input = POk u ->
  Fixpoint_of_reparse dbg hp hpo hd u /\ wf_b u = true /\ canon_auth hp hpo hd STNotSpecial u.
Proof. exact reparse_auth_HostOK. Qed.
Check C02_reparse_auth : forall dbg hp hpo hd ovr input u,
  HostOK hp hpo hd -> host_above hp hpo hd -> usv_list input -> auth_input input = true ->
  parse_url dbg hp hpo hd ovr None input = POk u ->
  parse_url dbg hp hpo hd None None (utf8_lossy (ser u)) = POk u /\ wf_b u = true /\ canon_auth hp hpo hd STNotSpecial u.
Print Assumptions C02_reparse_auth.

(* the canonical record itself: wf_b, for both scheme types *)
Theorem C02_canon_auth_wf : forall hp hpo hd, HostRT hp hpo hd -> forall st sch ui h pt p q f,
  auth_ok hp hpo hd st sch ui h pt p q f ->
  wf_b (auth_url hd sch ui h pt p q f) = true /\ cannot_be_a_base (auth_url hd sch ui h pt p q f) = Some false.
Proof. exact auth_url_wf. Qed.
Print Assumptions C02_canon_auth_wf.

(* the authority states are the identity on canonical text: reusable for joins and setters *)
Theorem C02_userinfo_state_identity : forall st ser ui X, ui_ok ui ->
  (forall count last, scan_last_at (st_is_special st) X count last = last) ->
  nlen ser + ui_ulen ui <= U32_MAX_P ->
  parse_userinfo st ser (ui_text ui ++ X) = POk (ser ++ ui_text ui, nlen ser + ui_ulen ui, X).
Proof. exact parse_userinfo_canon. Qed.
Print Assumptions C02_userinfo_state_identity.

Theorem C02_port_state_identity : forall dflt p X, p <= 65535 -> dflt <> Some p -> pe_ok X ->
  parse_port CUrlParser dflt (decimal p ++ X) = POk (Some p, X).
Proof. exact parse_port_canon. Qed.
Print Assumptions C02_port_state_identity.

(* non-vacuity: the host hypotheses have an instance (texts over letters, digits, '-', '.'), and with it
   "a://u:p@h.x:81/a/../b?q#f" -> "a://u:p@h.x:81/b?q#f" (offsets 1 5 8 11 14, port 81), "a:///p" (empty
   host), "a://@h" -> "a://h", "a://h:/" -> "a://h/" are in the class, parse, and re-parse to themselves *)
Example C02_host_hypotheses_inhabited : HostRT ex_hp ex_hp ex_hd /\ host_above ex_hp ex_hp ex_hd.
Proof. exact ex_host_RT. Qed.

Example C02_auth_inhabited :
  auth_input (B "a://u:p@h.x:81/a/../b?q#f") = true /\ auth_input (B "a:///p") = true
  /\ auth_input (B "a://@h") = true /\ auth_input (B "a:/p") = false /\ auth_input (B "http://h") = false
  /\ ex_result "a://u:p@h.x:81/a/../b?q#f" "a://u:p@h.x:81/b?q#f" 1 5 8 11 14 (Some 81) = true
  /\ ex_result "a:///p" "a:///p" 1 4 4 4 4 None = true
  /\ ex_result "a://@h" "a://h" 1 4 4 5 5 None = true
  /\ ex_result "a://h:/" "a://h/" 1 4 4 5 5 None = true.
Proof. exact auth_examples. Qed.

(* H. class (iv): special non-file scheme (http, https, ws, wss, ftp), parsed without a base.
   special_input: decided on the input - the scheme is one of the five (any number of '/' and '\' may
   follow the colon).  canon_special: as canon_auth for the type STSpecialNotFile (host parsed by
   Host::parse and never empty, port never the default of the scheme, query clean for SPECIAL_QUERY) and
   the path is "/" seg "/" ... "/" last with no '\' in any segment.  The first parse is taken without an
   encoding override (ovr = None); with an override the query bytes come from the caller's encoder. *)
Theorem C02_L1_special : forall dbg hp hpo hd, HostRT hp hpo hd -> forall input u,
  host_above hp hpo hd -> usv_list input -> special_input input = true ->
  parse_url dbg hp hpo hd None None input = POk u ->
  canon_special hp hpo hd u /\ wf_b u = true /\ ascii (ser u) /\ cannot_be_a_base u = Some false.
Proof. exact L1_special. Qed.
Check C02_L1_special : forall dbg hp hpo hd, HostRT hp hpo hd -> forall input u,
  host_above hp hpo hd -> usv_list input -> special_input input = true ->
  parse_url dbg hp hpo hd None None input = POk u ->
  canon_special hp hpo hd u /\ wf_b u = true /\ ascii (ser u) /\ cannot_be_a_base u = Some false.
Print Assumptions C02_L1_special.

Theorem C02_L3_special : forall dbg hp hpo hd, HostRT hp hpo hd -> forall u,
  canon_special hp hpo hd u -> Fixpoint_of_reparse dbg hp hpo hd u.
Proof. exact L3_special. Qed.
Check C02_L3_special : forall dbg hp hpo hd, HostRT hp hpo hd -> forall u,
  canon_special hp hpo hd u -> parse_url dbg hp hpo hd None None (utf8_lossy (ser u)) = POk u.
Print Assumptions C02_L3_special.

Theorem C02_reparse_special2 : forall dbg hp hpo hd input u,
  HostOK2 hp hpo hd -> usv_list input -> special_input input = true ->
  parse_url dbg hp hpo hd None None input = POk u ->
  Fixpoint_of_reparse dbg hp hpo hd u /\ wf_b u = true /\ canon_special hp hpo hd u.
Proof. exact reparse_special_HostOK2. Qed.
Check C02_reparse_special2 : forall dbg hp hpo hd input u,
  HostOK2 hp hpo hd -> usv_list input -> special_input input = true ->
  parse_url dbg hp hpo hd None None input = POk u ->
  parse_url dbg hp hpo hd None None (utf8_lossy (ser u)) = POk u /\ wf_b u = true /\ canon_special hp hpo hd u.
Print Assumptions C02_reparse_special2.

(* under HostOK (no instance: see C02_reparse_auth); C02_reparse_special2 is the form whose hypothesis has one *)
Theorem C02_reparse_special : forall dbg hp hpo hd input u,
  HostOK hp hpo hd -> host_above hp hpo hd -> usv_list input -> special_input input = true ->
  parse_url dbg hp hpo hd None None input = POk u ->
  Fixpoint_of_reparse dbg hp hpo hd u /\ wf_b u = true /\ canon_special hp hpo hd u.
Proof. exact reparse_special_HostOK. Qed.
Check C02_reparse_special : forall dbg hp hpo hd input u,
  HostOK hp hpo hd -> host_above hp hpo hd -> usv_list input -> special_input input = true ->
  parse_url dbg hp hpo hd None None input = POk u ->
  parse_url dbg hp hpo hd None None (utf8_lossy (ser u)) = POk u /\ wf_b u = true /\ canon_special hp hpo hd u.
Print Assumptions C02_reparse_special.

(* the path state of a special scheme is the identity on canonical text *)
Theorem C02_path_state_identity_special : forall dbg ps segs last rest ser hh,
  forallb good_seg_sp segs = true -> good_seg_sp last = true ->
  match rest with [] => True | c :: _ => is_qh c = true /\ is_tnl c = false end ->
  parse_path_loop dbg CUrlParser STSpecialNotFile ps (segs_text segs ++ last ++ rest) ser (nlen ser) [] hh
  = POk (ser ++ segs_text segs ++ last, hh, rest).
Proof. exact path_loop_canon_sp. Qed.
Print Assumptions C02_path_state_identity_special.

(* non-vacuity: "HTTP:\\u@H.x:80\a\..\b?q'#f" -> "http://u@H.x/b?q%27#f" (default port elided, '\' read as
   '/', offsets 4 8 9 12 12), "ws:h" -> "ws://h/", "https://h:8443/%2e/x\" -> "https://h:8443/x/"; "http://"
   is rejected (EmptyHost) *)
Example C02_special_inhabited :
  special_input (B "HTTP:\\u@H.x:80\a\..\b?q'#f") = true /\ special_input (B "ws:h") = true
  /\ special_input (B "file://h/") = false /\ special_input (B "a://h") = false
  /\ ex_result "HTTP:\\u@H.x:80\a\..\b?q'#f" "http://u@H.x/b?q%27#f" 4 8 9 12 12 None = true
  /\ ex_result "ws:h" "ws://h/" 2 5 5 6 6 None = true
  /\ ex_result "https://h:8443/%2e/x\" "https://h:8443/x/" 5 8 8 9 14 (Some 8443) = true
  /\ match ex_parse "http://" with PErr EmptyHost => true | _ => false end = true.
Proof. exact special_examples. Qed.

(* I. the union of classes (i)-(iv): every URL parsed without a base whose scheme is not file.
   nonfile_input: decided on the input - it has a scheme and the scheme is not "file" (no encoding override) *)
Theorem C02_reparse_nonfile2 : forall dbg hp hpo hd input u,
  HostOK2 hp hpo hd -> usv_list input -> nonfile_input input = true ->
  parse_url dbg hp hpo hd None None input = POk u ->
  Fixpoint_of_reparse dbg hp hpo hd u /\ wf_b u = true /\ ascii (ser u).
Proof. exact reparse_nonfile_HostOK2. Qed.
Check C02_reparse_nonfile2 : forall dbg hp hpo hd input u,
  HostOK2 hp hpo hd -> usv_list input -> nonfile_input input = true ->
  parse_url dbg hp hpo hd None None input = POk u ->
  parse_url dbg hp hpo hd None None (utf8_lossy (ser u)) = POk u /\ wf_b u = true /\ ascii (ser u).
Print Assumptions C02_reparse_nonfile2.

(* under HostOK (no instance: see C02_reparse_auth); C02_reparse_nonfile2 is the form whose hypothesis has one *)
Theorem C02_reparse_nonfile : forall dbg hp hpo hd input u,
  HostOK hp hpo hd -> host_above hp hpo hd -> usv_list input -> nonfile_input input = true ->
  parse_url dbg hp hpo hd None None input = POk u ->
  Fixpoint_of_reparse dbg hp hpo hd u /\ wf_b u = true /\ ascii (ser u).
Proof. exact reparse_nonfile_HostOK. Qed.
Check C02_reparse_nonfile : forall dbg hp hpo hd input u,
  HostOK hp hpo hd -> host_above hp hpo hd -> usv_list input -> nonfile_input input = true ->
  parse_url dbg hp hpo hd None None input = POk u ->
  parse_url dbg hp hpo hd None None (utf8_lossy (ser u)) = POk u /\ wf_b u = true /\ ascii (ser u).
Print Assumptions C02_reparse_nonfile.

Example C02_nonfile_inhabited :
  nonfile_input (B "about:blank") = true /\ nonfile_input (B "a:/x/../y") = true /\ nonfile_input (B "a://u@h:1/") = true
  /\ nonfile_input (B "HTTPS:\h") = true /\ nonfile_input (B "file:///x") = false /\ nonfile_input (B "/relative") = false.
Proof. exact nonfile_examples. Qed.

(* J. L2 for set_fragment, set_query, set_port; histories of parse + these setters.
   Canon = the union of the four canonical forms of sections C, D, G, H (opaque path; no authority; authority and
   non-special scheme; special non-file scheme).  Every Canon record is a fixpoint of re-parsing, every parse
   result without base of a non-file scheme is Canon (special schemes: without encoding override) *)
Theorem C02_Canon_fixpoint : forall dbg hp hpo hd, HostRT hp hpo hd -> forall u, Canon hp hpo hd u ->
  Fixpoint_of_reparse dbg hp hpo hd u /\ wf_b u = true /\ ascii (ser u).
Proof. exact Canon_fixpoint. Qed.
Check C02_Canon_fixpoint : forall dbg hp hpo hd, HostRT hp hpo hd -> forall u, Canon hp hpo hd u ->
  parse_url dbg hp hpo hd None None (utf8_lossy (ser u)) = POk u /\ wf_b u = true /\ ascii (ser u).
Print Assumptions C02_Canon_fixpoint.

Theorem C02_parse_Canon : forall dbg hp hpo hd, HostRT hp hpo hd -> forall ovr input u,
  host_above hp hpo hd -> usv_list input -> nonfile_input input = true ->
  (ovr = None \/ special_input input = false) ->
  parse_url dbg hp hpo hd ovr None input = POk u -> Canon hp hpo hd u.
Proof. exact parse_Canon. Qed.
Print Assumptions C02_parse_Canon.

(* the three setters keep Canon, for arbitrary arguments.  Premise nlen (ser u') <= U32_MAX_P: the new
   serialization fits the u32 offsets; beyond it Url::set_* panics in to_u32(..).unwrap() (no Url value results),
   which the model of the setters does not show, and the re-parse fails with Overflow *)
Theorem C02_set_fragment_Canon : forall dbg hp hpo hd, HostRT hp hpo hd -> forall u fr u',
  Canon hp hpo hd u -> usv_opt fr -> set_fragment dbg u fr = Some u' -> nlen (ser u') <= U32_MAX_P ->
  Canon hp hpo hd u'.
Proof. exact set_fragment_Canon. Qed.
Check C02_set_fragment_Canon : forall dbg hp hpo hd, HostRT hp hpo hd -> forall u fr u',
  Canon hp hpo hd u -> (match fr with Some s => usv_list s | None => True end) ->
  set_fragment dbg u fr = Some u' -> nlen (ser u') <= 4294967295 -> Canon hp hpo hd u'.
Print Assumptions C02_set_fragment_Canon.

Theorem C02_set_query_Canon : forall dbg hp hpo hd, HostRT hp hpo hd -> forall u qr u',
  Canon hp hpo hd u -> usv_opt qr -> set_query dbg u qr = Some u' -> nlen (ser u') <= U32_MAX_P ->
  Canon hp hpo hd u'.
Proof. exact set_query_Canon. Qed.
Check C02_set_query_Canon : forall dbg hp hpo hd, HostRT hp hpo hd -> forall u qr u',
  Canon hp hpo hd u -> (match qr with Some s => usv_list s | None => True end) ->
  set_query dbg u qr = Some u' -> nlen (ser u') <= 4294967295 -> Canon hp hpo hd u'.
Print Assumptions C02_set_query_Canon.

Theorem C02_set_port_Canon : forall dbg hp hpo hd u n u' s, Canon hp hpo hd u ->
  (match n with Some x => x <= 65535 | None => True end) ->
  set_port dbg u n = Some (u', s) -> nlen (ser u') <= U32_MAX_P -> Canon hp hpo hd u'.
Proof. exact set_port_Canon. Qed.
Check C02_set_port_Canon : forall dbg hp hpo hd u n u' s, Canon hp hpo hd u ->
  (match n with Some x => x <= 65535 | None => True end) ->
  set_port dbg u n = Some (u', s) -> nlen (ser u') <= 4294967295 -> Canon hp hpo hd u'.
Print Assumptions C02_set_port_Canon.

(* the setters computed on the common shape pre ++ ["?" q] ++ ["#" f] of every canonical record *)
Theorem C02_set_fragment_shape : forall dbg pre se ue hs he hi pt ps q f input, usv_list input ->
  set_fragment dbg (qf_url pre se ue hs he hi pt ps q f) (Some input)
  = Some (qf_url pre se ue hs he hi pt ps q (Some (frag_of input))).
Proof. exact set_fragment_qf_some. Qed.
Print Assumptions C02_set_fragment_shape.

Theorem C02_set_query_shape : forall dbg pre se ue hs he hi pt ps sch, nfirstn se pre = sch -> se <= nlen pre ->
  forall q f input, usv_list input ->
  set_query dbg (qf_url pre se ue hs he hi pt ps q f) (Some input)
  = Some (qf_url pre se ue hs he hi pt ps (Some (squery_of (scheme_type_of sch) input)) f).
Proof. exact set_query_qf_some. Qed.
Print Assumptions C02_set_query_shape.

Theorem C02_set_port_shape : forall dbg F R se ue hs hi pt p' q f,
  set_port_internal dbg (hp_url F pt R se ue hs hi q f) p' = Some (hp_url F p' R se ue hs hi q f).
Proof. exact set_port_internal_frame. Qed.
Print Assumptions C02_set_port_shape.

(* joins with a tail reference: a scheme-less reference that is - after trimming and tab/newline removal - empty,
   fragment-only ("#...") or query-led ("?...", possibly followed by "#...") against a Canon base (for "#..." any
   Canon base, also an opaque-path one; otherwise a cannot-be-a-base base is refused by the parser): the result is
   Canon, hence a fixpoint.  The base's encoding override must be absent or its scheme non-special.  The path
   arms of the relative state (path-absolute, path-relative, scheme-relative): N.2; any override: O.4. *)
Theorem C02_join_tail_Canon : forall dbg hp hpo hd, HostRT hp hpo hd -> forall ovr b input u,
  Canon hp hpo hd b -> usv_list input -> tail_ref input = true ->
  (ovr = None \/ st_is_special (scheme_type_of (b_scheme b)) = false) ->
  parse_url dbg hp hpo hd ovr (Some b) input = POk u -> Canon hp hpo hd u.
Proof. exact join_tail_Canon. Qed.
Print Assumptions C02_join_tail_Canon.

Theorem C02_join_tail_fixpoint : forall dbg hp hpo hd, HostRT hp hpo hd -> forall ovr b input u,
  Canon hp hpo hd b -> usv_list input -> tail_ref input = true ->
  (ovr = None \/ st_is_special (scheme_type_of (b_scheme b)) = false) ->
  parse_url dbg hp hpo hd ovr (Some b) input = POk u ->
  Fixpoint_of_reparse dbg hp hpo hd u /\ wf_b u = true /\ ascii (ser u).
Proof. exact join_tail_fixpoint. Qed.
Check C02_join_tail_fixpoint : forall dbg hp hpo hd, HostRT hp hpo hd -> forall ovr b input u,
  Canon hp hpo hd b -> usv_list input -> tail_ref input = true ->
  (ovr = None \/ st_is_special (scheme_type_of (b_scheme b)) = false) ->
  parse_url dbg hp hpo hd ovr (Some b) input = POk u ->
  parse_url dbg hp hpo hd None None (utf8_lossy (ser u)) = POk u /\ wf_b u = true /\ ascii (ser u).
Print Assumptions C02_join_tail_fixpoint.

Example C02_join_tail_inhabited :
  tail_ref (B " #x y") = true /\ tail_ref (B "?a b#c") = true /\ tail_ref (B "  ") = true
  /\ tail_ref (B "x") = false /\ tail_ref (B "a:b") = false
  /\ match parse_url true ex_hp ex_hp ex_hd None None (B "http://h/p?q#f") with
     | POk b => match parse_url true ex_hp ex_hp ex_hd None (Some b) (B "?a b#c") with
                | POk u => list_eqb (ser u) (B "http://h/p?a%20b#c") | _ => false end
                && match parse_url true ex_hp ex_hp ex_hd None (Some b) (B " #x y") with
                   | POk u => list_eqb (ser u) (B "http://h/p?q#x%20y") | _ => false end
                && match parse_url true ex_hp ex_hp ex_hd None (Some b) (B "") with
                   | POk u => list_eqb (ser u) (B "http://h/p?q") | _ => false end
     | _ => false
     end = true.
Proof. exact join_tail_examples. Qed.

(* C02_statement restricted to the histories  Url::parse (no base, non-file scheme; special schemes without
   encoding override)  followed by any number of set_fragment / set_query / set_port calls with arbitrary
   arguments and of joins with a tail_ref reference (ReachC): every record of such a history is a fixpoint of re-parsing, satisfies wf_b and is ASCII.
   ReachC is inside Reachable2, the quantifier of C02_statement.  ReachC2 .. ReachC9 (K.3, L.6, M.4, N.4, O.5, Q.4, R.4, R.6)
   each contain the one before. *)
Theorem C02_reach_partial : forall dbg hp hpo hd, HostOK2 hp hpo hd -> forall u, ReachC dbg hp hpo hd u ->
  Fixpoint_of_reparse dbg hp hpo hd u /\ wf_b u = true /\ ascii (ser u).
Proof. exact reach_partial. Qed.
Check C02_reach_partial : forall dbg hp hpo hd, HostOK2 hp hpo hd -> forall u, ReachC dbg hp hpo hd u ->
  parse_url dbg hp hpo hd None None (utf8_lossy (ser u)) = POk u /\ wf_b u = true /\ ascii (ser u).
Print Assumptions C02_reach_partial.

Theorem C02_reach_partial_in_statement : forall dbg hp hpo hd, HostOK2 hp hpo hd -> forall u,
  ReachC dbg hp hpo hd u -> Reachable2 dbg hp hpo hd u.
Proof. exact ReachC_Reachable2. Qed.
Print Assumptions C02_reach_partial_in_statement.

(* the same for the parser model linked with the host model: the only premise about hosts is IdnaOK *)
Theorem C02_reach_partial_model : forall dbg idna, IdnaOK idna -> forall u,
  ReachC dbg (host_parse idna) host_parse_opaque host_display u ->
  Fixpoint_of_reparse dbg (host_parse idna) host_parse_opaque host_display u /\ wf_b u = true /\ ascii (ser u).
Proof. exact (fun dbg idna OK => reach_partial dbg _ _ _ (HostOK2_model idna OK)). Qed.
Print Assumptions C02_reach_partial_model.

(* non-vacuity: http://EXAMPLE.com:80/a/../b?x#y -> set_port(8080) -> set_query("k=v w#") -> set_fragment(None)
   -> set_port(80) -> set_fragment("f g") = http://EXAMPLE.com/b?k=v%20w%23#f%20g, a fixpoint; and
   "a:b c  ?q" -> set_query(None) = "a:b c" (trailing spaces of the opaque path stripped) *)
Example C02_reach_partial_inhabited :
  match ex_hist "http://EXAMPLE.com:80/a/../b?x#y"
          [OSetPort (Some 8080); OSetQuery (Some (B "k=v w#")); OSetFragment None; OSetPort (Some 80); OSetFragment (Some (B "f g"))] with
  | Some u => list_eqb (ser u) (B "http://EXAMPLE.com/b?k=v%20w%23#f%20g")
              && match parse_url true ex_hp ex_hp ex_hd None None (ser u) with POk v => url_eqb v u | _ => false end
  | None => false
  end = true
  /\ match ex_hist "a:b c  ?q" [OSetQuery None] with
     | Some u => list_eqb (ser u) (B "a:b c") | None => false end = true.
Proof. exact reach_partial_example. Qed.

(* K. Url::query_pairs_mut: the form serializer writes into the query without the parser *)
(* K.1  the link between the two crates, over the tables regenerated from BOTH sources: every byte that
   form_urlencoded::Serializer can push - a byte of the byte_serialized_unchanged class, the replacement of a space
   (T_FORM_SPACE_OUT), a byte of the percent-encoding table (T_ENC_TABLE: '%' and the upper-case hex digits), the
   two separators - is left alone by the query state of the URL parser for BOTH scheme kinds: it is in neither
   T_QUERY nor T_SPECIAL_QUERY, it is not '#', not tab / LF / CR, and it is printable ASCII.  A change of either
   side alone (form_urlencoded leaving a further byte unescaped, or a further byte in a query encode set) breaks it *)
Theorem C02_form_query_clean : forall c, form_emits c = true -> query_leaves_alone c = true.
Proof. exact form_query_clean. Qed.
Check C02_form_query_clean : forall c,
  byte_serialized_unchanged c || memb c T_FORM_SPACE_OUT || memb c T_ENC_TABLE
  || (c =? T_FORM_PUSH_SEP) || (c =? T_FORM_PUSH_EQ) = true ->
  negb (should_encode T_QUERY c) && negb (should_encode T_SPECIAL_QUERY c) && negb (c =? 35) && negb (is_tnl c)
  && (32 <? c) && (c <? 127) = true.
Print Assumptions C02_form_query_clean.

(* the same with the class spelled out *)
Theorem C02_form_query_clean_explicit : forall c,
  byte_serialized_unchanged c = true \/ c = 43 \/ c = 37 \/ is_hex_upper c = true \/ c = 38 \/ c = 61 ->
  should_encode T_QUERY c = false /\ should_encode T_SPECIAL_QUERY c = false /\ c <> 35 /\ is_tnl c = false
  /\ 32 < c /\ c < 127.
Proof. exact form_query_clean_explicit. Qed.
Print Assumptions C02_form_query_clean_explicit.

Example C02_form_query_clean_inhabited :
  form_emits 65 = true /\ form_emits 42 = true /\ form_emits 43 = true /\ form_emits 37 = true /\ form_emits 38 = true
  /\ form_emits 39 = false /\ form_emits 126 = false /\ form_emits 35 = false
  /\ query_leaves_alone 39 = false /\ query_leaves_alone 126 = true.
Proof. vm_compute. repeat split. Qed.

(* K.2  L2 for query_pairs_mut: one editing session (query_pairs_mut(), any sequence of append_pair /
   append_key_only / extend_pairs / extend_keys_only / clear / encoding_override with arbitrary arguments, then
   finish() or drop) on a record of one of the four canonical forms yields a record of a canonical form: the new
   query is the old one (or nothing, after clear) followed by bytes of the class of K.1.  Same length premise as
   for the setters *)
Theorem C02_qpm_Canon : forall dbg hp hpo hd, HostRT hp hpo hd -> forall u ops u',
  Canon hp hpo hd u -> Forall C15_Ser.op_ok ops -> query_pairs_session dbg u ops = Some u' ->
  nlen (ser u') <= U32_MAX_P -> Canon hp hpo hd u'.
Proof. exact qpm_Canon. Qed.
Check C02_qpm_Canon : forall dbg hp hpo hd, HostRT hp hpo hd -> forall u ops u',
  Canon hp hpo hd u -> Forall C15_Ser.op_ok ops -> query_pairs_session dbg u ops = Some u' ->
  nlen (ser u') <= 4294967295 -> Canon hp hpo hd u'.
Print Assumptions C02_qpm_Canon.

(* the session computed on the common shape pre ++ ["?" q] ++ ["#" f] *)
Theorem C02_qpm_shape : forall dbg pre se ue hs he hi pt ps q f ops,
  wf_b (qf_url pre se ue hs he hi pt ps q f) = true -> ascii (ser (qf_url pre se ue hs he hi pt ps q f)) ->
  Forall C15_Ser.op_ok ops ->
  exists nq, query_pairs_session dbg (qf_url pre se ue hs he hi pt ps q f) ops = Some (qf_url pre se ue hs he hi pt ps (Some nq) f)
    /\ (forall P : N -> Prop, (forall c, C15_Bser.form_alpha c = true -> P c) ->
        Forall P (match q with Some x => x | None => [] end) -> Forall P nq).
Proof. exact qpm_session_qf. Qed.
Print Assumptions C02_qpm_shape.

(* K.2b  L2 for set_password and set_username: for every Canon record and every argument the result is Canon.
   On a record with a non-empty host the userinfo text is replaced by a canonical userinfo (user name and password
   are the USERINFO encoding of the arguments; an empty password or None removes ':' password, and '@' too when the
   user name is empty; an empty user name in front of a password gives ":pw@"); records without host (opaque path,
   no authority, empty host) refuse and stay unchanged.  Uses that a displayed host starts with neither ':' nor '@'
   (host_text_ok).  Same length premise as for the other setters *)
Theorem C02_set_password_Canon : forall dbg hp hpo hd u pw u' s, Canon hp hpo hd u -> usv_opt pw ->
  set_password dbg u pw = Some (u', s) -> nlen (ser u') <= U32_MAX_P -> Canon hp hpo hd u'.
Proof. exact set_password_Canon. Qed.
Check C02_set_password_Canon : forall dbg hp hpo hd u pw u' s, Canon hp hpo hd u ->
  (match pw with Some x => usv_list x | None => True end) ->
  set_password dbg u pw = Some (u', s) -> nlen (ser u') <= 4294967295 -> Canon hp hpo hd u'.
Print Assumptions C02_set_password_Canon.

Theorem C02_set_username_Canon : forall dbg hp hpo hd u un u' s, Canon hp hpo hd u -> usv_list un ->
  set_username dbg u un = Some (u', s) -> nlen (ser u') <= U32_MAX_P -> Canon hp hpo hd u'.
Proof. exact set_username_Canon. Qed.
Check C02_set_username_Canon : forall dbg hp hpo hd u un u' s, Canon hp hpo hd u -> usv_list un ->
  set_username dbg u un = Some (u', s) -> nlen (ser u') <= 4294967295 -> Canon hp hpo hd u'.
Print Assumptions C02_set_username_Canon.

(* the quirks port setter (url::quirks::set_port): the argument goes through the port state of the parser in the
   setter context - a port <= 65535 other than the scheme's default, or none - then set_port_internal *)
Theorem C02_q_set_port_Canon : forall dbg hp hpo hd u v u' s, Canon hp hpo hd u ->
  q_set_port dbg u v = Some (u', s) -> nlen (ser u') <= U32_MAX_P -> Canon hp hpo hd u'.
Proof. exact q_set_port_Canon. Qed.
Check C02_q_set_port_Canon : forall dbg hp hpo hd u v u' s, Canon hp hpo hd u ->
  q_set_port dbg u v = Some (u', s) -> nlen (ser u') <= 4294967295 -> Canon hp hpo hd u'.
Print Assumptions C02_q_set_port_Canon.

(* the two setters computed on the frame  scheme "://" user rest X  (rest = "" | "@" | ":" pw "@"; X = everything from
   the host on, offsets behind the userinfo stored relative to its start) *)
Theorem C02_set_password_shape : forall dbg sch X dh dp dq df hi pt Un Ur p, usv_list p -> p <> [] ->
  cannot_have_credentials_or_port (sh_url sch X dh dp dq df hi pt Un Ur) = Some false ->
  set_password dbg (sh_url sch X dh dp dq df hi pt Un Ur) (Some p)
  = Some (sh_url sch X dh dp dq df hi pt Un (58 :: uenc p ++ [64]), SOk).
Proof. exact set_password_some_sh. Qed.
Print Assumptions C02_set_password_shape.

Theorem C02_set_username_shape : forall dbg sch X dh dp dq df hi pt Un P un, usv_list un ->
  cannot_have_credentials_or_port (sh_url sch X dh dp dq df hi pt Un (58 :: P ++ [64])) = Some false ->
  set_username dbg (sh_url sch X dh dp dq df hi pt Un (58 :: P ++ [64])) un
  = Some (if list_eqb Un (utf8_encode un) then sh_url sch X dh dp dq df hi pt Un (58 :: P ++ [64])
          else sh_url sch X dh dp dq df hi pt (uenc un) (58 :: P ++ [64]), SOk).
Proof. exact set_username_pw_sh. Qed.
Print Assumptions C02_set_username_shape.

Example C02_cred_inhabited :
  match ex_hist "a://h.x/p" [OSetUsername (B "u s")] with Some u => list_eqb (ser u) (B "a://u%20s@h.x/p") | None => false end = true
  /\ match ex_hist "a://h.x/p" [OSetUsername (B "u s"); OSetPassword (Some (B "p:w"))] with
     | Some u => list_eqb (ser u) (B "a://u%20s:p%3Aw@h.x/p") | None => false end = true
  /\ match ex_hist "a://h.x/p" [OSetUsername (B "u s"); OSetPassword (Some (B "p:w")); OSetUsername []] with
     | Some u => list_eqb (ser u) (B "a://:p%3Aw@h.x/p")
                 && match parse_url true ex_hp ex_hp ex_hd None None (ser u) with POk v => url_eqb v u | _ => false end
     | None => false end = true
  /\ match ex_hist "a://h.x/p" [OSetUsername (B "u s"); OSetPassword (Some (B "p:w")); OSetUsername []; OSetPassword None] with
     | Some u => list_eqb (ser u) (B "a://h.x/p") | None => false end = true.
Proof. exact cred_example. Qed.

(* K.3  the quantifier with query_pairs_mut.  Reachable2 (section A) has no constructor for Url::query_pairs_mut -
   a public mutator whose result does not come out of the parser; Reachable3 = Reachable2 + such sessions.
   C02_statement3 implies C02_statement and is false with it: C02_statement3_refuted (L.7) *)
Definition C02_full_statement3 : Prop := C02_statement3.

Theorem C02_statement3_implies_statement : C02_statement3 -> C02_statement.
Proof. exact statement3_implies_2. Qed.
Print Assumptions C02_statement3_implies_statement.

(* C02_statement3 restricted to the histories of C02_reach_partial extended by set_password / set_username calls with
   arbitrary arguments, by the quirks setters username / password / search / hash (wrappers of proved setters) and port, and by
   query_pairs_mut sessions (ReachC2; canon_op = the ten operations with a proved L2) *)
Theorem C02_reach_partial2 : forall dbg hp hpo hd, HostOK2 hp hpo hd -> forall u, ReachC2 dbg hp hpo hd u ->
  Fixpoint_of_reparse dbg hp hpo hd u /\ wf_b u = true /\ ascii (ser u).
Proof.
  intros dbg hp hpo hd HOK u H. exact (Canon_fixpoint dbg hp hpo hd (proj1 HOK) u (ReachC2_Canon dbg hp hpo hd HOK u H)).
Qed.
Check C02_reach_partial2 : forall dbg hp hpo hd, HostOK2 hp hpo hd -> forall u, ReachC2 dbg hp hpo hd u ->
  parse_url dbg hp hpo hd None None (utf8_lossy (ser u)) = POk u /\ wf_b u = true /\ ascii (ser u).
Print Assumptions C02_reach_partial2.

Theorem C02_reach_partial2_in_statement : forall dbg hp hpo hd, HostOK2 hp hpo hd -> forall u,
  ReachC2 dbg hp hpo hd u -> Reachable3 dbg hp hpo hd u.
Proof. exact ReachC2_Reachable3. Qed.
Print Assumptions C02_reach_partial2_in_statement.

(* ... and the serialization of every such record resolves to the record itself against EVERY base record b (C08's
   absolute law; Properties/C08.v C08_absolute_nonfile2 has it for no-base parse results, here it holds of
   records produced by joins, setters and query_pairs_mut sessions as well) *)
Theorem C02_reach_partial2_absolute : forall dbg hp hpo hd, HostOK2 hp hpo hd -> forall u b, ReachC2 dbg hp hpo hd u ->
  parse_url dbg hp hpo hd None (Some b) (utf8_lossy (ser u)) = POk u.
Proof.
  intros dbg hp hpo hd HOK u b H. exact (Canon_absolute dbg hp hpo hd HOK u b (ReachC2_Canon dbg hp hpo hd HOK u H)).
Qed.
Check C02_reach_partial2_absolute : forall dbg hp hpo hd, HostOK2 hp hpo hd -> forall u b, ReachC2 dbg hp hpo hd u ->
  parse_url dbg hp hpo hd None (Some b) (utf8_lossy (ser u)) = POk u.
Print Assumptions C02_reach_partial2_absolute.

Theorem C02_reach_partial2_extends : forall dbg hp hpo hd u, ReachC dbg hp hpo hd u -> ReachC2 dbg hp hpo hd u.
Proof. exact ReachC_C2. Qed.
Print Assumptions C02_reach_partial2_extends.

Theorem C02_reach_partial2_model : forall dbg idna, IdnaOK idna -> forall u,
  ReachC2 dbg (host_parse idna) host_parse_opaque host_display u ->
  Fixpoint_of_reparse dbg (host_parse idna) host_parse_opaque host_display u /\ wf_b u = true /\ ascii (ser u).
Proof. exact (fun dbg idna OK => C02_reach_partial2 dbg _ _ _ (HostOK2_model idna OK)). Qed.
Print Assumptions C02_reach_partial2_model.

(* non-vacuity: http://h/p?a='#f -> query_pairs_mut().append_pair("k'", "v w~").append_key_only("*") gives
   http://h/p?a=%27&k%27=v+w%7E&*#f , a fixpoint; a:b c -> query_pairs_mut().clear() gives "a:b c?" *)
Example C02_qpm_inhabited :
  match ex_qpm "http://h/p?a='#f" [OpAppendPair (B "k'") (B "v w~"); OpAppendKeyOnly (B "*")] with
  | Some u => list_eqb (ser u) (B "http://h/p?a=%27&k%27=v+w%7E&*#f")
              && match parse_url true ex_hp ex_hp ex_hd None None (ser u) with POk v => url_eqb v u | _ => false end
  | None => false
  end = true
  /\ match ex_qpm "a:b c" [OpClear] with
     | Some u => list_eqb (ser u) (B "a:b c?")
                 && match parse_url true ex_hp ex_hp ex_hd None None (ser u) with POk v => url_eqb v u | _ => false end
     | None => false end = true.
Proof. exact qpm_example. Qed.

(* L. L2 for the host, scheme and path setters; ReachC3; C02_statement and C02_statement3 are false *)
(* L.1  Url::set_host_internal computed on the canonical record with authority, for every new host value and both
   callers (opt_new_port = None: set_host / set_ip_host / quirks hostname; Some np: quirks host): the host text (and
   the port) is replaced, nothing else; and on a record without authority and without the "/." marker: "//" host is
   inserted *)
Theorem C02_set_host_internal_shape : forall dbg hd sch ui h pt p q f h' onp,
  set_host_internal dbg hd (auth_url hd sch ui h pt p q f) h' onp
  = Some (auth_url hd sch ui h' (match onp with Some np => np | None => pt end) p q f).
Proof. exact set_host_internal_auth. Qed.
Print Assumptions C02_set_host_internal_shape.

Theorem C02_set_host_internal_shape_noauth : forall dbg hd sch segs last q f h' onp,
  UrlRecord.starts_with s_ss (path_text segs last) = false ->
  set_host_internal dbg hd (noauth_url sch (path_text segs last) q f) h' onp
  = Some (auth_url hd sch UNone h' (match onp with Some np => np | None => None end) (Some (segs, last)) q f).
Proof. exact set_host_internal_noauth. Qed.
Print Assumptions C02_set_host_internal_shape_noauth.

(* L.2  L2 for Url::set_ip_host and Url::set_host(Some _): on every Canon record, outside the known step classes
   (F-C03-5 marker, F-C02-4 empty host on a URL with credentials or port, F-C02-9 IPv4 on a non-special scheme), the
   result is Canon.  host_nonempty (only the empty text parses to the empty host) is one more hypothesis on the host
   functions than HostOK2; it holds of the host model for every IDNA function (C02_host_nonempty_model) *)
Theorem C02_set_ip_host_Canon : forall dbg hp hpo hd, HostRT hp hpo hd -> host_above hp hpo hd -> forall u h' u' s,
  ip_clause hp hpo hd -> Canon hp hpo hd u -> op_args_ok (OSetIpHost h') ->
  known_step2 dbg hp hpo hd u (OSetIpHost h') = false ->
  set_ip_host dbg hd u h' = Some (u', s) -> nlen (ser u') <= U32_MAX_P -> Canon hp hpo hd u'.
Proof. exact set_ip_host_Canon. Qed.
Check C02_set_ip_host_Canon : forall dbg hp hpo hd, HostRT hp hpo hd -> host_above hp hpo hd -> forall u h' u' s,
  ip_clause hp hpo hd -> Canon hp hpo hd u -> op_args_ok (OSetIpHost h') ->
  known_step2 dbg hp hpo hd u (OSetIpHost h') = false ->
  set_ip_host dbg hd u h' = Some (u', s) -> nlen (ser u') <= 4294967295 -> Canon hp hpo hd u'.
Print Assumptions C02_set_ip_host_Canon.

Theorem C02_set_host_some_Canon : forall dbg hp hpo hd, HostRT hp hpo hd -> host_above hp hpo hd -> forall u x u' s,
  host_nonempty hp hpo -> Canon hp hpo hd u -> usv_list x ->
  known_step2 dbg hp hpo hd u (OSetHost (Some x)) = false ->
  set_host dbg hp hpo hd u (Some x) = Some (u', s) -> nlen (ser u') <= U32_MAX_P -> Canon hp hpo hd u'.
Proof. exact set_host_some_Canon. Qed.
Check C02_set_host_some_Canon : forall dbg hp hpo hd, HostRT hp hpo hd -> host_above hp hpo hd -> forall u x u' s,
  ((forall t, hp t <> Ok (HDomain [])) /\ (forall t, usv_list t -> hpo t = Ok (HDomain []) -> t = [])) ->
  Canon hp hpo hd u -> usv_list x ->
  known_step2 dbg hp hpo hd u (OSetHost (Some x)) = false ->
  set_host dbg hp hpo hd u (Some x) = Some (u', s) -> nlen (ser u') <= 4294967295 -> Canon hp hpo hd u'.
Print Assumptions C02_set_host_some_Canon.

Theorem C02_host_nonempty_model : forall idna, host_nonempty (host_parse idna) host_parse_opaque.
Proof. exact host_nonempty_model. Qed.
Print Assumptions C02_host_nonempty_model.

(* L.3  L2 for Url::set_scheme and url::quirks::set_protocol: on every Canon record, for EVERY argument, the result is
   Canon (the code keeps the scheme kind; the trailing set_port(previous port) drops a port that is the new scheme's
   default: http://h:443/ -> https://h/) *)
Theorem C02_set_scheme_Canon : forall dbg hp hpo hd u x u' s, Canon hp hpo hd u ->
  set_scheme dbg u x = Some (u', s) -> nlen (ser u') <= U32_MAX_P -> Canon hp hpo hd u'.
Proof. exact set_scheme_Canon. Qed.
Check C02_set_scheme_Canon : forall dbg hp hpo hd u x u' s, Canon hp hpo hd u ->
  set_scheme dbg u x = Some (u', s) -> nlen (ser u') <= 4294967295 -> Canon hp hpo hd u'.
Print Assumptions C02_set_scheme_Canon.

Theorem C02_q_set_protocol_Canon : forall dbg hp hpo hd u x u' s, Canon hp hpo hd u ->
  q_set_protocol dbg u x = Some (u', s) -> nlen (ser u') <= U32_MAX_P -> Canon hp hpo hd u'.
Proof. exact q_set_protocol_Canon. Qed.
Print Assumptions C02_q_set_protocol_Canon.

(* the scheme swap on the frame of all four forms (everything behind the scheme, offsets relative to its end) *)
Theorem C02_set_scheme_shape : forall dbg sch Z due dhs dhe hi pt dps q f x r,
  set_scheme dbg (sf_url sch Z due dhs dhe hi pt dps q f) x = Some r ->
  r = (sf_url sch Z due dhs dhe hi pt dps q f, SErrUnit) \/
  exists ns rem ha, parse_scheme CSetter (input_new_no_trim x) = Some (ns, rem)
     /\ has_authority dbg (sf_url sch Z due dhs dhe hi pt dps q f) = Some ha
     /\ st_is_special (scheme_type_of ns) = st_is_special (scheme_type_of sch)
     /\ st_is_file (scheme_type_of ns) && ha = false
     /\ exists r', set_port dbg (sf_url ns Z due dhs dhe hi pt dps q f) pt = Some r' /\ r = (fst r', SOk).
Proof. exact set_scheme_sf. Qed.
Print Assumptions C02_set_scheme_shape.

(* L.4  the path start state in the SETTER context writes a canonical path behind any serialization, whatever the
   argument ('?' and '#' come out as %3F / %23): L1 for the state Url::set_path runs *)
Theorem C02_path_state_setter : forall dbg ser p hh s hh' rem, usv_list p ->
  parse_path_start dbg CSetter STNotSpecial hh ser p = POk (s, hh', rem) ->
  exists p', pth_ok p' /\ s = ser ++ pth_text p'.
Proof. exact pps_setter_ns. Qed.
Print Assumptions C02_path_state_setter.

Theorem C02_path_state_setter_special : forall dbg ser p hh s hh' rem, usv_list p -> ends_with_byte 47 ser = false ->
  parse_path_start dbg CSetter STSpecialNotFile hh ser p = POk (s, hh', rem) ->
  exists segs last, forallb good_seg_sp segs = true /\ good_seg_sp last = true /\ s = ser ++ path_text segs last.
Proof. exact pps_setter_sp. Qed.
Print Assumptions C02_path_state_setter_special.

(* the loop of the setter context is the loop of the URL-parser context on the argument with '?' -> "%3F", '#' -> "%23" *)
Theorem C02_path_loop_setter : forall dbg st, st_is_file st = false -> forall ps l ser ss hh, usv_list l ->
  parse_path_loop dbg CSetter st ps l ser ss [] hh = parse_path_loop dbg CUrlParser st ps (qh_sub l) ser ss [] hh.
Proof. intros dbg st Hnf ps l ser ss hh Hu. exact (loop_setter_sub dbg st Hnf ps l ser ss [] [] hh Hu pend_eq_nil). Qed.
Print Assumptions C02_path_loop_setter.

(* L.5  L2 for Url::set_path and url::quirks::set_pathname on Canon records WITH an authority (classes (iii), (iv)),
   for every argument.  Records without authority (F-C02-8 / F-C03-5 live there): M.3; opaque paths (F-C02-3): M.3b *)
Theorem C02_set_path_Canon : forall dbg hp hpo hd u x u', Canon hp hpo hd u -> has_authority_b u = true -> usv_list x ->
  set_path dbg u x = Some u' -> nlen (ser u') <= U32_MAX_P -> Canon hp hpo hd u'.
Proof. exact set_path_Canon. Qed.
Check C02_set_path_Canon : forall dbg hp hpo hd u x u', Canon hp hpo hd u -> has_authority_b u = true -> usv_list x ->
  set_path dbg u x = Some u' -> nlen (ser u') <= 4294967295 -> Canon hp hpo hd u'.
Print Assumptions C02_set_path_Canon.

Theorem C02_q_set_pathname_Canon : forall dbg hp hpo hd u x u', Canon hp hpo hd u -> has_authority_b u = true -> usv_list x ->
  q_set_pathname dbg u x = Some u' -> nlen (ser u') <= U32_MAX_P -> Canon hp hpo hd u'.
Proof. exact q_set_pathname_Canon. Qed.
Print Assumptions C02_q_set_pathname_Canon.

(* L.6  C02_statement3 restricted to the histories of C02_reach_partial2 extended by set_ip_host, set_host(Some _),
   set_scheme, quirks protocol (on every record) and set_path, quirks pathname (on records with an authority), each step
   outside known_step2 (ReachC3; canon_op3): every record is a fixpoint of re-parsing, wf_b, ASCII. *)
Theorem C02_reach_partial3 : forall dbg hp hpo hd, HostOK2 hp hpo hd -> host_nonempty hp hpo -> forall u,
  ReachC3 dbg hp hpo hd u -> Fixpoint_of_reparse dbg hp hpo hd u /\ wf_b u = true /\ ascii (ser u).
Proof.
  intros dbg hp hpo hd HOK HNE u H.
  exact (Canon_fixpoint dbg hp hpo hd (proj1 HOK) u (ReachC3_Canon dbg hp hpo hd HOK HNE u H)).
Qed.
Check C02_reach_partial3 : forall dbg hp hpo hd, HostOK2 hp hpo hd -> host_nonempty hp hpo -> forall u,
  ReachC3 dbg hp hpo hd u ->
  parse_url dbg hp hpo hd None None (utf8_lossy (ser u)) = POk u /\ wf_b u = true /\ ascii (ser u).
Print Assumptions C02_reach_partial3.

Theorem C02_reach_partial3_in_statement : forall dbg hp hpo hd, HostOK2 hp hpo hd -> host_nonempty hp hpo -> forall u,
  ReachC3 dbg hp hpo hd u -> Reachable3 dbg hp hpo hd u.
Proof. exact ReachC3_Reachable3. Qed.
Print Assumptions C02_reach_partial3_in_statement.

Theorem C02_reach_partial3_extends : forall dbg hp hpo hd u, ReachC2 dbg hp hpo hd u -> ReachC3 dbg hp hpo hd u.
Proof. exact ReachC2_C3. Qed.
Print Assumptions C02_reach_partial3_extends.

Theorem C02_reach_partial3_absolute : forall dbg hp hpo hd, HostOK2 hp hpo hd -> host_nonempty hp hpo -> forall u b,
  ReachC3 dbg hp hpo hd u -> parse_url dbg hp hpo hd None (Some b) (utf8_lossy (ser u)) = POk u.
Proof.
  intros dbg hp hpo hd HOK HNE u b H.
  exact (Canon_absolute dbg hp hpo hd HOK u b (ReachC3_Canon dbg hp hpo hd HOK HNE u H)).
Qed.
Print Assumptions C02_reach_partial3_absolute.

(* for the parser model linked with the host model the only premise about hosts is IdnaOK *)
Theorem C02_reach_partial3_model : forall dbg idna, IdnaOK idna -> forall u,
  ReachC3 dbg (host_parse idna) host_parse_opaque host_display u ->
  Fixpoint_of_reparse dbg (host_parse idna) host_parse_opaque host_display u /\ wf_b u = true /\ ascii (ser u).
Proof. exact (fun dbg idna OK => C02_reach_partial3 dbg _ _ _ (HostOK2_model idna OK) (host_nonempty_model idna)). Qed.
Print Assumptions C02_reach_partial3_model.

(* non-vacuity, on the host model with idna_clean: http://u@h.x:443/a?q#f -> set_scheme("https") = https://u@h.x/a?q#f
   -> set_host("example.org:99") = https://u@example.org/a?q#f -> set_path("b c/../d?e") = https://u@example.org/d%3Fe?q#f
   -> set_ip_host(127.0.0.1) -> quirks pathname("x") = https://u@127.0.0.1/x?q#f ; a:/p -> set_host("h") -> set_scheme("b")
   -> set_ip_host([::1]) = b://[::1]/p ; each is a fixpoint *)
Example C02_reach_partial3_inhabited :
  match m_hist "http://u@h.x:443/a?q#f" [OSetScheme (B "https")] with
  | Some u => list_eqb (ser u) (B "https://u@h.x/a?q#f") && m_fix u | None => false end = true
  /\ match m_hist "http://u@h.x:443/a?q#f" [OSetScheme (B "https"); OSetHost (Some (B "example.org:99"))] with
     | Some u => list_eqb (ser u) (B "https://u@example.org/a?q#f") && m_fix u | None => false end = true
  /\ match m_hist "http://u@h.x:443/a?q#f" [OSetScheme (B "https"); OSetHost (Some (B "example.org:99")); OSetPath (B "b c/../d?e")] with
     | Some u => list_eqb (ser u) (B "https://u@example.org/d%3Fe?q#f") && m_fix u | None => false end = true
  /\ match m_hist "http://u@h.x:443/a?q#f" [OSetScheme (B "https"); OSetHost (Some (B "example.org:99")); OSetPath (B "b c/../d?e");
                                            OSetIpHost (HIpv4 2130706433); OQPathname (B "x")] with
     | Some u => list_eqb (ser u) (B "https://u@127.0.0.1/x?q#f") && m_fix u | None => false end = true
  /\ match m_hist "a:/p" [OSetHost (Some (B "h")); OSetScheme (B "b"); OSetIpHost (HIpv6 [0;0;0;0;0;0;0;1])] with
     | Some u => list_eqb (ser u) (B "b://[::1]/p") && m_fix u | None => false end = true.
Proof. exact reach3_example. Qed.

(* L.7  C02_statement and C02_statement3 are FALSE.  Their quantifiers miss the class F-C07-8 (class 7 of
   Model/KnownC07.known_c07): url::quirks::set_host with an empty host on a URL that has a password and no user
   name - quirks::set_host refuses an empty host when the URL has a username or a port but does not look at the
   password (quirks::set_hostname does).  On the parser model linked with the host model (HostOK2 holds of it):
   a://:pw@h/p -> quirks::set_host("") = a://:pw@/p, the step is outside known_step2, the result is not in
   Known_file_drive, and its serialization does not parse (EmptyHost). *)
Theorem C02_F_C07_8_witness :
  parse_url true mhp host_parse_opaque host_display None None w10_input = POk w10_u0
  /\ Known_file_drive w10_u0 = false
  /\ known_step2 true mhp host_parse_opaque host_display w10_u0 w10_op = false
  /\ apply_op true mhp host_parse_opaque host_display w10_u0 w10_op = Some w10_u1
  /\ Known_file_drive w10_u1 = false
  /\ list_eqb (ser w10_u1) (B "a://:pw@/p") = true
  /\ match reparse true mhp host_parse_opaque host_display w10_u1 with PErr EmptyHost => true | _ => false end = true.
Proof. exact w10_facts. Qed.
Print Assumptions C02_F_C07_8_witness.

Theorem C02_statement_refuted : ~ C02_statement.
Proof. exact statement_refuted. Qed.
Check C02_statement_refuted : ~ (forall dbg hp hpo hd, HostOK2 hp hpo hd ->
  forall u, Reachable2 dbg hp hpo hd u -> Fixpoint_of_reparse dbg hp hpo hd u).
Print Assumptions C02_statement_refuted.

Theorem C02_statement3_refuted : ~ C02_statement3.
Proof. exact statement3_refuted. Qed.
Print Assumptions C02_statement3_refuted.

(* M. C02_statement4: the statement over Reachable4 (known_step3 = known_step2 + Known_F_C02_10) *)
(* M.0  Known_F_C02_10 = the class F-C07-8 seen from C02 (computable; mirror of known_f_c07_8 in harness/src/bin/c02/main.rs):
   url::quirks::set_host on a URL whose scheme is not special, whose user name is empty and which has a password.
   Reachable4 = Reachable3 with every step outside known_step3; C02_statement4 also carries host_nonempty, the
   hypothesis the host-setter theorems need (proved of the host model).  Neither proved nor refuted; proved for the
   histories ReachC3 .. ReachC9, all inside Reachable4 (C02_reach_partial3_in_statement4, C02_reach_partialN_in_statement
   for N = 4 .. 9). *)
Definition C02_full_statement4 : Prop := C02_statement4.

Theorem C02_F_C02_10_witness :
  Known_F_C02_10 w10_u0 w10_op = true
  /\ known_step2 true mhp host_parse_opaque host_display w10_u0 w10_op = false
  /\ known_step3 true mhp host_parse_opaque host_display w10_u0 w10_op = true
  /\ apply_op true mhp host_parse_opaque host_display w10_u0 w10_op = Some w10_u1
  /\ list_eqb (ser w10_u1) (B "a://:pw@/p") = true
  /\ match reparse true mhp host_parse_opaque host_display w10_u1 with PErr EmptyHost => true | _ => false end = true.
Proof. exact F_C02_10_witness. Qed.
Print Assumptions C02_F_C02_10_witness.

(* Reachable4 restricts Reachable3 (hence the implication, from a premise L.7 refutes) ... *)
Theorem C02_Reachable4_restricts : forall dbg hp hpo hd u, Reachable4 dbg hp hpo hd u -> Reachable3 dbg hp hpo hd u.
Proof. exact Reachable4_3. Qed.
Print Assumptions C02_Reachable4_restricts.

Theorem C02_statement3_implies_statement4 : C02_statement3 -> C02_statement4.
Proof. exact statement3_implies_4. Qed.
Print Assumptions C02_statement3_implies_statement4.

(* ... and the histories of C02_reach_partial3 are inside it *)
Theorem C02_reach_partial3_in_statement4 : forall dbg hp hpo hd, HostOK2 hp hpo hd -> host_nonempty hp hpo -> forall u,
  ReachC3 dbg hp hpo hd u -> Reachable4 dbg hp hpo hd u.
Proof. exact ReachC3_Reachable4. Qed.
Print Assumptions C02_reach_partial3_in_statement4.

Example C02_F_C02_10_class :
  match mparse (B "a://u:pw@h/p") with POk u => Known_F_C02_10 u (OQHost []) | _ => true end = false
  /\ match mparse (B "http://:pw@h/p") with POk u => Known_F_C02_10 u (OQHost []) | _ => true end = false
  /\ match mparse (B "a://h/p") with POk u => Known_F_C02_10 u (OQHost []) | _ => true end = false
  /\ match mparse (B "a:/p") with POk u => Known_F_C02_10 u (OQHost []) | _ => true end = false
  /\ match mparse (B "a://:pw@h/p") with POk u => Known_F_C02_10 u (OQHostname []) | _ => true end = false
  /\ match mparse (B "a://:pw@h/p") with POk u => Known_F_C02_10 u (OQHost (B "x")) | _ => false end = true.
Proof. exact F_C02_10_class. Qed.

(* M.1  L2 for url::quirks::set_hostname and url::quirks::set_host on every Canon record.  Both run the host state of the
   parser on the argument (quirks host also the port state behind ':') and call set_host_internal; the empty host is
   stored only on a record without userinfo and port: quirks hostname checks port, user name and password itself,
   quirks host does not look at the password - hence known_step3 (Known_F_C02_10) in its premise.  Uses the first
   clause of host_nonempty (Host::parse never returns the empty host) *)
Theorem C02_q_set_hostname_Canon : forall dbg hp hpo hd, HostRT hp hpo hd -> host_above hp hpo hd -> forall u v u' s,
  Canon hp hpo hd u -> known_step2 dbg hp hpo hd u (OQHostname v) = false ->
  q_set_hostname dbg hp hpo hd u v = Some (u', s) -> nlen (ser u') <= U32_MAX_P -> Canon hp hpo hd u'.
Proof. exact q_set_hostname_Canon. Qed.
Check C02_q_set_hostname_Canon : forall dbg hp hpo hd, HostRT hp hpo hd -> host_above hp hpo hd -> forall u v u' s,
  Canon hp hpo hd u -> known_step2 dbg hp hpo hd u (OQHostname v) = false ->
  q_set_hostname dbg hp hpo hd u v = Some (u', s) -> nlen (ser u') <= 4294967295 -> Canon hp hpo hd u'.
Print Assumptions C02_q_set_hostname_Canon.

Theorem C02_q_set_host_Canon : forall dbg hp hpo hd, HostRT hp hpo hd -> host_above hp hpo hd -> forall u v u' s,
  (forall t, hp t <> Ok (HDomain [])) -> Canon hp hpo hd u -> known_step3 dbg hp hpo hd u (OQHost v) = false ->
  q_set_host dbg hp hpo hd u v = Some (u', s) -> nlen (ser u') <= U32_MAX_P -> Canon hp hpo hd u'.
Proof. exact q_set_host_Canon. Qed.
Check C02_q_set_host_Canon : forall dbg hp hpo hd, HostRT hp hpo hd -> host_above hp hpo hd -> forall u v u' s,
  (forall t, hp t <> Ok (HDomain [])) -> Canon hp hpo hd u ->
  known_step2 dbg hp hpo hd u (OQHost v) || Known_F_C02_10 u (OQHost v) = false ->
  q_set_host dbg hp hpo hd u v = Some (u', s) -> nlen (ser u') <= 4294967295 -> Canon hp hpo hd u'.
Print Assumptions C02_q_set_host_Canon.

(* the getters the two setters consult, on the userinfo frame  scheme "://" user rest X *)
Theorem C02_username_shape : forall dbg sch X dh dp dq df hi pt Un Ur, username dbg (sh_url sch X dh dp dq df hi pt Un Ur) = Some Un.
Proof. exact sh_username. Qed.
Print Assumptions C02_username_shape.

Theorem C02_password_shape : forall dbg sch X dh dp dq df hi pt Un P,
  password dbg (sh_url sch X dh dp dq df hi pt Un (58 :: P ++ [64])) = Some (Some P).
Proof. exact sh_password. Qed.
Print Assumptions C02_password_shape.

(* M.2  L2 for Url::set_host(None) on every Canon record, outside known_step2 (F-C02-2: path starting with "//"; F-C03-5:
   marker): no length premise (the result is shorter).  Opaque path: refused; no authority, empty host, special scheme:
   unchanged; authority with a host: everything between scheme ":" and the path is cut out.  On an EMPTY path followed by
   a query or fragment the debug build panics (F-C04-1: set_host returns no value, the premise is false) and the release
   build gives scheme ":" [?q] [#f], the canonical opaque record with an empty path *)
Theorem C02_set_host_none_Canon : forall dbg hp hpo hd, HostRT hp hpo hd -> forall u u' s, Canon hp hpo hd u ->
  known_step2 dbg hp hpo hd u (OSetHost None) = false ->
  set_host dbg hp hpo hd u None = Some (u', s) -> Canon hp hpo hd u'.
Proof. exact set_host_none_Canon. Qed.
Check C02_set_host_none_Canon : forall dbg hp hpo hd, HostRT hp hpo hd -> forall u u' s, Canon hp hpo hd u ->
  known_step2 dbg hp hpo hd u (OSetHost None) = false ->
  set_host dbg hp hpo hd u None = Some (u', s) -> Canon hp hpo hd u'.
Print Assumptions C02_set_host_none_Canon.

(* the setter on the frame  scheme ":" "//" M' T [?q] [#f]  (T = the path text): None = panic *)
Theorem C02_set_host_none_shape : forall dbg hp hpo hd sch M' ue hs he hi pt T q f, hi <> HI_None ->
  scheme_type_of sch = STNotSpecial ->
  set_host dbg hp hpo hd (hn_url sch M' ue hs he hi pt T q f) None
  = if dbg && negb (C02_AuthWf.head_is (w0 (T ++ qf_text q f)) 47) then None else Some (hn_result sch T q f, SOk).
Proof. exact set_host_none_frame. Qed.
Print Assumptions C02_set_host_none_shape.

(* M.3  L2 for Url::set_path on every Canon record that is not cannot-be-a-base (classes (ii), (iii), (iv)) and for
   url::quirks::set_pathname on EVERY Canon record, for every argument, outside known_step2 (F-C03-5: the record carries
   the "/." marker; F-C02-8: no authority and the new path starts with "//").  On a record without authority the result
   is the canonical record without authority, or - when the path state writes nothing (empty argument) - scheme ":" [?q]
   [#f], the canonical opaque record with an empty path.  Url::set_path on an opaque path (class (i)): M.3b *)
Theorem C02_set_path_Canon_hier : forall dbg hp hpo hd u x u', Canon hp hpo hd u -> cannot_be_a_base u = Some false ->
  usv_list x -> known_step2 dbg hp hpo hd u (OSetPath x) = false ->
  set_path dbg u x = Some u' -> nlen (ser u') <= U32_MAX_P -> Canon hp hpo hd u'.
Proof. exact set_path_Canon_hier. Qed.
Check C02_set_path_Canon_hier : forall dbg hp hpo hd u x u', Canon hp hpo hd u -> cannot_be_a_base u = Some false ->
  usv_list x -> known_step2 dbg hp hpo hd u (OSetPath x) = false ->
  set_path dbg u x = Some u' -> nlen (ser u') <= 4294967295 -> Canon hp hpo hd u'.
Print Assumptions C02_set_path_Canon_hier.

Theorem C02_q_set_pathname_Canon_all : forall dbg hp hpo hd u x u', Canon hp hpo hd u -> usv_list x ->
  known_step2 dbg hp hpo hd u (OQPathname x) = false ->
  q_set_pathname dbg u x = Some u' -> nlen (ser u') <= U32_MAX_P -> Canon hp hpo hd u'.
Proof. exact q_set_pathname_Canon_all. Qed.
Check C02_q_set_pathname_Canon_all : forall dbg hp hpo hd u x u', Canon hp hpo hd u -> usv_list x ->
  known_step2 dbg hp hpo hd u (OQPathname x) = false ->
  q_set_pathname dbg u x = Some u' -> nlen (ser u') <= 4294967295 -> Canon hp hpo hd u'.
Print Assumptions C02_q_set_pathname_Canon_all.

(* M.3b  L2 for Url::set_path on the canonical records with an OPAQUE path, outside F-C02-3 ('?' / '#' in the argument, or
   an argument ending in a space): the new path is "%2F" (when the tab/LF/CR-free argument starts with '/') followed by the
   CONTROLS encoding of the argument without tab / LF / CR - CONTROLS-clean, free of '?' '#', not starting with '/', not
   ending in a space or control.  C02_set_path_opaque_shape: the result, for EVERY argument (also inside F-C02-3) *)
Theorem C02_set_path_opaque_shape : forall dbg sch P q f x u', opaque_ok sch P q f -> usv_list x ->
  set_path dbg (opaque_url sch P q f) x = Some u' -> u' = opaque_url sch (opq_path x) q f.
Proof. exact set_path_opaque. Qed.
Print Assumptions C02_set_path_opaque_shape.

Theorem C02_set_path_opaque_Canon : forall dbg hp hpo hd sch P q f x u', opaque_ok sch P q f -> usv_list x ->
  Known_F_C02_3 (opaque_url sch P q f) (OSetPath x) = false ->
  set_path dbg (opaque_url sch P q f) x = Some u' -> nlen (ser u') <= U32_MAX_P -> Canon hp hpo hd u'.
Proof. exact set_path_opaque_Canon. Qed.
Check C02_set_path_opaque_Canon : forall dbg hp hpo hd sch P q f x u', opaque_ok sch P q f -> usv_list x ->
  Known_F_C02_3 (opaque_url sch P q f) (OSetPath x) = false ->
  set_path dbg (opaque_url sch P q f) x = Some u' -> nlen (ser u') <= 4294967295 -> Canon hp hpo hd u'.
Print Assumptions C02_set_path_opaque_Canon.

Theorem C02_opaque_path_state_setter : forall l ser, usv_list l ->
  parse_cannot_be_a_base_path CSetter ser l = (ser ++ encode T_CONTROLS (utf8_encode (no_tnl l)), []).
Proof. exact cbb_setter_spec. Qed.
Print Assumptions C02_opaque_path_state_setter.

(* M.4  C02_statement4 restricted to the histories of C02_reach_partial3 extended by quirks hostname, quirks host,
   set_host(None), quirks pathname and set_path (on every record) and by path_segments_mut sessions on opaque paths (refused:
   unchanged), each step outside known_step3 (ReachC4; canon_op4 = every operation of C02_Reach.op except path_segments_mut
   sessions on records that are not cannot-be-a-base): every record is a fixpoint of re-parsing, wf_b, ASCII. *)
Theorem C02_reach_partial4 : forall dbg hp hpo hd, HostOK2 hp hpo hd -> host_nonempty hp hpo -> forall u,
  ReachC4 dbg hp hpo hd u -> Fixpoint_of_reparse dbg hp hpo hd u /\ wf_b u = true /\ ascii (ser u).
Proof. exact reach_partial4. Qed.
Check C02_reach_partial4 : forall dbg hp hpo hd, HostOK2 hp hpo hd -> host_nonempty hp hpo -> forall u,
  ReachC4 dbg hp hpo hd u ->
  parse_url dbg hp hpo hd None None (utf8_lossy (ser u)) = POk u /\ wf_b u = true /\ ascii (ser u).
Print Assumptions C02_reach_partial4.

Theorem C02_reach_partial4_in_statement : forall dbg hp hpo hd, HostOK2 hp hpo hd -> host_nonempty hp hpo -> forall u,
  ReachC4 dbg hp hpo hd u -> Reachable4 dbg hp hpo hd u.
Proof. exact ReachC4_Reachable4. Qed.
Print Assumptions C02_reach_partial4_in_statement.

Theorem C02_reach_partial4_extends : forall dbg hp hpo hd u, ReachC3 dbg hp hpo hd u -> ReachC4 dbg hp hpo hd u.
Proof. exact ReachC3_C4. Qed.
Print Assumptions C02_reach_partial4_extends.

Theorem C02_reach_partial4_absolute : forall dbg hp hpo hd, HostOK2 hp hpo hd -> host_nonempty hp hpo -> forall u b,
  ReachC4 dbg hp hpo hd u -> parse_url dbg hp hpo hd None (Some b) (utf8_lossy (ser u)) = POk u.
Proof. exact reach4_absolute. Qed.
Print Assumptions C02_reach_partial4_absolute.

Theorem C02_reach_partial4_model : forall dbg idna, IdnaOK idna -> forall u,
  ReachC4 dbg (host_parse idna) host_parse_opaque host_display u ->
  Fixpoint_of_reparse dbg (host_parse idna) host_parse_opaque host_display u /\ wf_b u = true /\ ascii (ser u).
Proof. exact reach_partial4_model. Qed.
Print Assumptions C02_reach_partial4_model.

(* non-vacuity, on the host model with idna_clean: a://u:pw@h.x:81/p?q -> quirks hostname("example.org") -> quirks
   host("[::1]:82") = a://u:pw@[::1]:82/p?q -> set_host(None) = a:/p?q -> set_path("x/../y z") = a:/y%20z?q -> set_path("")
   = a:?q ; a:/p -> quirks host("") = a:///p ; a://h/p -> quirks pathname("") = a://h ; a:b?q -> set_path("/x y/z") = a:%2Fx y/z?q ; a://h?q -> set_host(None): panic in
   the debug build (F-C04-1), a:?q in the release build; each record is a fixpoint *)
Example C02_reach_partial4_inhabited :
  match m_hist "a://u:pw@h.x:81/p?q" [OQHostname (B "example.org")] with
  | Some u => list_eqb (ser u) (B "a://u:pw@example.org:81/p?q") && m_fix u | None => false end = true
  /\ match m_hist "a://u:pw@h.x:81/p?q" [OQHostname (B "example.org"); OQHost (B "[::1]:82")] with
     | Some u => list_eqb (ser u) (B "a://u:pw@[::1]:82/p?q") && m_fix u | None => false end = true
  /\ match m_hist "a://u:pw@h.x:81/p?q" [OQHostname (B "example.org"); OQHost (B "[::1]:82"); OSetHost None] with
     | Some u => list_eqb (ser u) (B "a:/p?q") && m_fix u | None => false end = true
  /\ match m_hist "a://u:pw@h.x:81/p?q" [OQHostname (B "example.org"); OQHost (B "[::1]:82"); OSetHost None; OSetPath (B "x/../y z")] with
     | Some u => list_eqb (ser u) (B "a:/y%20z?q") && m_fix u | None => false end = true
  /\ match m_hist "a://u:pw@h.x:81/p?q" [OQHostname (B "example.org"); OQHost (B "[::1]:82"); OSetHost None; OSetPath (B "x/../y z"); OSetPath []] with
     | Some u => list_eqb (ser u) (B "a:?q") && m_fix u | None => false end = true
  /\ match m_hist "a:/p" [OQHost []] with Some u => list_eqb (ser u) (B "a:///p") && m_fix u | None => false end = true
  /\ match m_hist "a://h/p" [OQPathname []] with Some u => list_eqb (ser u) (B "a://h") && m_fix u | None => false end = true
  /\ match m_hist "a:b?q" [OSetPath (B "/x y/z")] with Some u => list_eqb (ser u) (B "a:%2Fx y/z?q") && m_fix u | None => false end = true
  /\ match m_hist "a://h?q" [OSetHost None] with Some _ => false | None => true end = true
  /\ match m_hist_r "a://h?q" [OSetHost None] with Some u => list_eqb (ser u) (B "a:?q") && m_fix u | None => false end = true.
Proof. exact reach4_example. Qed.

(* N. joins through every arm of the relative state, base-ignoring absolute references, path_segments_mut *)
(* N.1  A reference with its own scheme that is not file, and that is non-special, or special but other than the base's
   scheme or followed by two or more slashes / back-slashes (abs_ref, computable): the base is not consulted - for
   EVERY base record (no premise on it) - so the result is canonical by C02_parse_Canon. *)
Theorem C02_join_abs_eq : forall dbg hp hpo hd ovr b input, abs_ref b input = true ->
  parse_url dbg hp hpo hd ovr (Some b) input = parse_url dbg hp hpo hd ovr None input.
Proof. exact join_abs_eq. Qed.
Print Assumptions C02_join_abs_eq.

Theorem C02_join_abs_Canon : forall dbg hp hpo hd, HostRT hp hpo hd -> forall ovr b input u,
  host_above hp hpo hd -> usv_list input -> abs_ref b input = true -> (ovr = None \/ special_input input = false) ->
  parse_url dbg hp hpo hd ovr (Some b) input = POk u -> Canon hp hpo hd u.
Proof. exact join_abs_Canon. Qed.
Print Assumptions C02_join_abs_Canon.

(* N.2  EVERY reference without a scheme (rel_ref, computable) against a canonical base: empty / fragment-only /
   query-led (C02_join_tail_Canon) and the three path arms - scheme-relative ("//..."; "\\" too for a special base),
   path-absolute, path-relative (pop of the base's last segment, dot segments in every spelling, back-slashes for special
   bases) - incl. bases without authority serialised with the "/." marker: the marker is kept when the new path starts
   with "//" and removed otherwise (C02_wqf_noauth_marker).  Same premise on the encoding override as for tail joins. *)
Theorem C02_join_rel_Canon : forall dbg hp hpo hd, HostRT hp hpo hd -> host_above hp hpo hd -> forall ovr b input u,
  Canon hp hpo hd b -> usv_list input -> rel_ref input = true ->
  (ovr = None \/ st_is_special (scheme_type_of (b_scheme b)) = false) ->
  parse_url dbg hp hpo hd ovr (Some b) input = POk u -> Canon hp hpo hd u.
Proof. exact join_rel_Canon. Qed.
Print Assumptions C02_join_rel_Canon.

Theorem C02_join_rel_fixpoint : forall dbg hp hpo hd, HostRT hp hpo hd -> host_above hp hpo hd -> forall ovr b input u,
  Canon hp hpo hd b -> usv_list input -> rel_ref input = true ->
  (ovr = None \/ st_is_special (scheme_type_of (b_scheme b)) = false) ->
  parse_url dbg hp hpo hd ovr (Some b) input = POk u ->
  Fixpoint_of_reparse dbg hp hpo hd u /\ wf_b u = true /\ ascii (ser u).
Proof. exact join_rel_fixpoint. Qed.
Print Assumptions C02_join_rel_fixpoint.

Theorem C02_wqf_noauth_marker : forall ovr sch T rest, UrlRecord.starts_with [47] T = true ->
  let a := nlen (sch ++ [58]) in
  with_query_and_fragment ovr CUrlParser STNotSpecial (nlen sch) a a a HI_None None (nlen ((sch ++ [58]) ++ [47; 46]))
    (((sch ++ [58]) ++ [47; 46]) ++ T) rest
  = (' (s2, qs, fs) <~ parse_query_and_fragment ovr CUrlParser STNotSpecial (nlen sch) (noauth_pre sch T) rest ;;
     POk (mkUrl s2 (nlen sch) a a a HI_None None (a + nlen (marker_of T)) qs fs)).
Proof. exact wqf_noauth_marker_eq. Qed.
Print Assumptions C02_wqf_noauth_marker.

Example C02_join_path_inhabited :
  ex_join "http://h/p/q?q#f" "../x y" "http://h/x%20y" = true
  /\ ex_join "http://h/p/q?q#f" "\y/./z?k" "http://h/y/z?k" = true
  /\ ex_join "http://h/p/q?q#f" "/\h2/z" "http://h2/z" = true
  /\ ex_join "http://h/p/q?q#f" "a/../b/%2e#g" "http://h/p/b/#g" = true
  /\ ex_join "a://h" "x/y" "a://h/x/y" = true
  /\ ex_join "a://h/p" "//h2" "a://h2" = true
  /\ ex_join "a:/p/q" "../../..//x" "a:/.//x" = true
  /\ ex_join "a:/.//p/q" "r" "a:/.//p/r" = true
  /\ ex_join "a:/.//p/q" "/r" "a:/r" = true
  /\ ex_join "a:/.//p/q" "../../r" "a:/r" = true.
Proof. exact join_path_examples. Qed.

(* N.3  L2 for Url::path_segments_mut sessions (open; any sequence of clear / pop / pop_if_empty / push / extend with
   arbitrary &str arguments; drop) on EVERY canonical record without the "/." marker (with the marker: class F-C03-5):
   the result is canonical.  (F-C06-7, fixed in rust-url, does not touch the statement: push(".<TAB>.") was treated as ".."
   by the path state and popped a segment - the result was canonical all the same; extend() skips such a segment.) *)
Theorem C02_psm_session_Canon : forall dbg hp hpo hd, HostRT hp hpo hd -> forall u ops u' status,
  Canon hp hpo hd u -> Forall psm_op_ok ops -> has_marker u = false ->
  path_segments_session dbg u ops = Some (u', status) -> nlen (ser u') <= U32_MAX_P -> Canon hp hpo hd u'.
Proof. exact psm_session_Canon. Qed.
Print Assumptions C02_psm_session_Canon.

(* the invariant of the serialization during a session, per operation (F = everything in front of the path) *)
Theorem C02_psm_extend_shape : forall dbg st F, st_is_file st = false -> forall segments X s', PI st X ->
  Forall usv_list segments -> psm_extend_loop dbg st (nlen F) (F ++ X) segments = Some s' ->
  exists X', s' = F ++ X' /\ PI st X'.
Proof. exact pi_extend. Qed.
Print Assumptions C02_psm_extend_shape.

(* N.4  C02_statement4 restricted to the four canonical classes: histories of parse (no base, non-file scheme; special
   schemes without encoding override) ;; joins with every scheme-less reference and with base-ignoring absolute
   references ;; EVERY operation of the setter model (all 19 of C02_Reach.op, path_segments_mut sessions included) outside
   known_step3 ;; query_pairs_mut sessions.  Outside ReachC5: an encoding override on special schemes and references
   with the special scheme of the base followed by fewer than two slashes ("http:x" against an http base), both in
   section O; the file scheme (class (v)), sections P-R. *)
Theorem C02_reach_partial5 : forall dbg hp hpo hd, HostOK2 hp hpo hd -> host_nonempty hp hpo -> forall u,
  ReachC5 dbg hp hpo hd u -> Fixpoint_of_reparse dbg hp hpo hd u /\ wf_b u = true /\ ascii (ser u).
Proof.
  intros dbg hp hpo hd HOK HNE u H. exact (reach_partial6 dbg hp hpo hd HOK HNE u (ReachC5_C6 dbg hp hpo hd u H)).
Qed.
Check C02_reach_partial5 : forall dbg hp hpo hd, HostOK2 hp hpo hd -> host_nonempty hp hpo -> forall u,
  ReachC5 dbg hp hpo hd u ->
  parse_url dbg hp hpo hd None None (utf8_lossy (ser u)) = POk u /\ wf_b u = true /\ ascii (ser u).
Print Assumptions C02_reach_partial5.

Theorem C02_reach_partial5_in_statement : forall dbg hp hpo hd, HostOK2 hp hpo hd -> host_nonempty hp hpo -> forall u,
  ReachC5 dbg hp hpo hd u -> Reachable4 dbg hp hpo hd u.
Proof. exact ReachC5_Reachable4. Qed.
Print Assumptions C02_reach_partial5_in_statement.

Theorem C02_reach_partial5_extends : forall dbg hp hpo hd u, ReachC4 dbg hp hpo hd u -> ReachC5 dbg hp hpo hd u.
Proof. exact ReachC4_C5. Qed.
Print Assumptions C02_reach_partial5_extends.

Theorem C02_reach_partial5_absolute : forall dbg hp hpo hd, HostOK2 hp hpo hd -> host_nonempty hp hpo -> forall u b,
  ReachC5 dbg hp hpo hd u -> parse_url dbg hp hpo hd None (Some b) (utf8_lossy (ser u)) = POk u.
Proof.
  intros dbg hp hpo hd HOK HNE u b H.
  exact (Canon_absolute dbg hp hpo hd HOK u b (ReachC6_Canon dbg hp hpo hd HOK HNE u (ReachC5_C6 dbg hp hpo hd u H))).
Qed.
Print Assumptions C02_reach_partial5_absolute.

Theorem C02_reach_partial5_model : forall dbg idna, IdnaOK idna -> forall u,
  ReachC5 dbg (host_parse idna) host_parse_opaque host_display u ->
  Fixpoint_of_reparse dbg (host_parse idna) host_parse_opaque host_display u /\ wf_b u = true /\ ascii (ser u).
Proof. exact (fun dbg idna OK => C02_reach_partial5 dbg _ _ _ (HostOK2_model idna OK) (host_nonempty_model idna)). Qed.
Print Assumptions C02_reach_partial5_model.

(* one step with ANY operation of the model on a canonical record outside the known step classes *)
Theorem C02_step_Canon : forall dbg hp hpo hd, HostOK2 hp hpo hd -> host_nonempty hp hpo -> forall u o u',
  Canon hp hpo hd u -> op_args_ok o -> known_step3 dbg hp hpo hd u o = false ->
  apply_op dbg hp hpo hd u o = Some u' -> nlen (ser u') <= U32_MAX_P -> Canon hp hpo hd u'.
Proof. exact canon_step_all. Qed.
Print Assumptions C02_step_Canon.

Example C02_reach_partial5_inhabited :
  match m_hist "http://h/a/b?q#f" [OPathSegments [PPush [46; 9; 46]; PPush (B "x/y")]] with
  | Some u => list_eqb (ser u) (B "http://h/a/b/x%2Fy?q#f") && m_fix u | None => false end = true
  /\ match m_hist "a:/p/q" [OPathSegments [PPop; PPop; PPush []; PPush (B "z w")]] with
     | Some u => list_eqb (ser u) (B "a:/z%20w") && m_fix u | None => false end = true
  /\ match m_hist "a://h" [OPathSegments [PExtend [B "a"; B ".."; B "%2e"; []]; PPopIfEmpty]] with
     | Some u => list_eqb (ser u) (B "a://h/a/%252e") && m_fix u | None => false end = true
  /\ match m_join "http://h/a/b?q#f" "../c d/./e?k" with
     | Some u => list_eqb (ser u) (B "http://h/c%20d/e?k") && m_fix u | None => false end = true
  /\ match m_join "http://h/a/b?q#f" "https:x" with
     | Some u => list_eqb (ser u) (B "https://x/") && m_fix u | None => false end = true
  /\ match m_join "http://h/a/b?q#f" "zz:/.//p" with
     | Some u => list_eqb (ser u) (B "zz:/.//p") && m_fix u | None => false end = true
  /\ rel_ref (B "../c d/./e?k") = true
  /\ match parse_url true mhp host_parse_opaque host_display None None (B "http://h/a/b?q#f") with
     | POk bu => abs_ref bu (B "https:x") && abs_ref bu (B "zz:/.//p") && negb (abs_ref bu (B "http:x")) && abs_ref bu (B "http://x")
     | _ => false end = true.
Proof. exact reach5_example. Qed.

(* O. any encoding override; same-scheme special references ("http:x" against an http base) *)
(* O.1  the query state with an ARBITRARY encoding override (no premise on the function, not even that its values
   are bytes) writes text free of every byte of the scheme kind's query set: percent-encoded text never contains a
   byte of its own set.  So what it writes is canonical query text and the (UTF-8) re-parse stores it unchanged. *)
Theorem C02_percent_encode_clean : forall S bs, set_stable S = true -> clean S (pe_display S bs) = true.
Proof. exact pe_display_clean. Qed.
Print Assumptions C02_percent_encode_clean.

Theorem C02_query_fragment_any_override : forall ovr st se ser l s' qs fs, usv_list l ->
  parse_query_and_fragment ovr CUrlParser st se ser l = POk (s', qs, fs) ->
  exists q f, s' = ser ++ qf_text q f
  /\ qs = qf_qs (nlen ser) q /\ fs = qf_fs (nlen ser) q f
  /\ opt_le qs U32_MAX_P /\ opt_le fs U32_MAX_P
  /\ opt_clean (query_set st) q /\ opt_clean T_FRAGMENT f.
Proof. exact pqf_out_g. Qed.
Print Assumptions C02_query_fragment_any_override.

(* O.2  C02_parse_Canon without its premise on the override *)
Theorem C02_parse_Canon_any_override : forall dbg hp hpo hd, HostRT hp hpo hd -> host_above hp hpo hd -> forall ovr input u,
  usv_list input -> nonfile_input input = true ->
  parse_url dbg hp hpo hd ovr None input = POk u -> Canon hp hpo hd u.
Proof. exact parse_Canon_g. Qed.
Print Assumptions C02_parse_Canon_any_override.

(* O.3  EVERY arm of the relative state (empty, '#', '?', scheme-relative, path-absolute, path-relative) on a canonical
   base with a special scheme, any override, for ANY text l handed to it - also the text behind "http:" *)
Theorem C02_relative_state_special : forall dbg hp hpo hd, HostRT hp hpo hd -> host_above hp hpo hd -> forall ovr b l u,
  Canon hp hpo hd b -> scheme_type_of (b_scheme b) = STSpecialNotFile -> usv_list l ->
  parse_relative dbg hp hpo hd ovr CUrlParser STSpecialNotFile b l = POk u -> Canon hp hpo hd u.
Proof. exact rel_special_Canon. Qed.
Print Assumptions C02_relative_state_special.

(* O.4  joins: every scheme-less reference, and every reference with a non-file scheme - base-ignoring (abs_ref) or
   carrying the special scheme of the base followed by fewer than two slashes (same_ref; the two classes exhaust
   nonfile_input: C02_nonfile_abs_or_same) - against a canonical base, any override *)
Theorem C02_join_rel_Canon_any_override : forall dbg hp hpo hd, HostRT hp hpo hd -> host_above hp hpo hd -> forall ovr b input u,
  Canon hp hpo hd b -> usv_list input -> rel_ref input = true ->
  parse_url dbg hp hpo hd ovr (Some b) input = POk u -> Canon hp hpo hd u.
Proof. exact join_rel_Canon_g. Qed.
Print Assumptions C02_join_rel_Canon_any_override.

Theorem C02_join_same_scheme_Canon : forall dbg hp hpo hd, HostRT hp hpo hd -> host_above hp hpo hd -> forall ovr b input u,
  Canon hp hpo hd b -> usv_list input -> same_ref b input = true ->
  parse_url dbg hp hpo hd ovr (Some b) input = POk u -> Canon hp hpo hd u.
Proof. exact join_same_Canon_g. Qed.
Print Assumptions C02_join_same_scheme_Canon.

Theorem C02_nonfile_abs_or_same : forall b input, nonfile_input input = true ->
  abs_ref b input = true \/ same_ref b input = true.
Proof. exact nonfile_abs_or_same. Qed.
Print Assumptions C02_nonfile_abs_or_same.

Theorem C02_join_nonfile_Canon : forall dbg hp hpo hd, HostRT hp hpo hd -> host_above hp hpo hd -> forall ovr b input u,
  Canon hp hpo hd b -> usv_list input -> nonfile_input input = true ->
  parse_url dbg hp hpo hd ovr (Some b) input = POk u -> Canon hp hpo hd u.
Proof. exact join_nonfile_Canon_g. Qed.
Print Assumptions C02_join_nonfile_Canon.

(* O.5  C02_statement4 restricted to everything except the file scheme: histories of parse (no base, non-file scheme,
   ANY encoding override) ;; joins with EVERY reference that has no scheme or a non-file scheme (any override; a
   reference is of one of three kinds: C02_ref_trichotomy) ;; joins of ANY Reachable4 record (file records included)
   with a base-ignoring absolute reference ;; every operation of the setter model outside known_step3 ;;
   query_pairs_mut sessions.  Outside ReachC6: file RESULTS only (class (v): parse of file inputs,
   file-scheme references, scheme-less references against file bases, mutators / query_pairs_mut on file records);
   sections P-R. *)
Theorem C02_reach_partial6 : forall dbg hp hpo hd, HostOK2 hp hpo hd -> host_nonempty hp hpo -> forall u,
  ReachC6 dbg hp hpo hd u -> Fixpoint_of_reparse dbg hp hpo hd u /\ wf_b u = true /\ ascii (ser u).
Proof. exact reach_partial6. Qed.
Check C02_reach_partial6 : forall dbg hp hpo hd, HostOK2 hp hpo hd -> host_nonempty hp hpo -> forall u,
  ReachC6 dbg hp hpo hd u ->
  parse_url dbg hp hpo hd None None (utf8_lossy (ser u)) = POk u /\ wf_b u = true /\ ascii (ser u).
Print Assumptions C02_reach_partial6.

Theorem C02_reach_partial6_in_statement : forall dbg hp hpo hd, HostOK2 hp hpo hd -> host_nonempty hp hpo -> forall u,
  ReachC6 dbg hp hpo hd u -> Reachable4 dbg hp hpo hd u.
Proof. exact ReachC6_Reachable4. Qed.
Print Assumptions C02_reach_partial6_in_statement.

Theorem C02_reach_partial6_extends : forall dbg hp hpo hd u, ReachC5 dbg hp hpo hd u -> ReachC6 dbg hp hpo hd u.
Proof. exact ReachC5_C6. Qed.
Print Assumptions C02_reach_partial6_extends.

Theorem C02_reach_partial6_absolute : forall dbg hp hpo hd, HostOK2 hp hpo hd -> host_nonempty hp hpo -> forall u b,
  ReachC6 dbg hp hpo hd u -> parse_url dbg hp hpo hd None (Some b) (utf8_lossy (ser u)) = POk u.
Proof.
  intros dbg hp hpo hd HOK HNE u b H.
  exact (Canon_absolute dbg hp hpo hd HOK u b (ReachC6_Canon dbg hp hpo hd HOK HNE u H)).
Qed.
Print Assumptions C02_reach_partial6_absolute.

Theorem C02_reach_partial6_model : forall dbg idna, IdnaOK idna -> forall u,
  ReachC6 dbg (host_parse idna) host_parse_opaque host_display u ->
  Fixpoint_of_reparse dbg (host_parse idna) host_parse_opaque host_display u /\ wf_b u = true /\ ascii (ser u).
Proof. exact reach_partial6_model. Qed.
Print Assumptions C02_reach_partial6_model.

Theorem C02_ref_trichotomy : forall input, rel_ref input = true \/ nonfile_input input = true \/ file_input input = true.
Proof. exact ref_trichotomy. Qed.
Print Assumptions C02_ref_trichotomy.

(* non-vacuity on the host model; ovr_ex puts '#', TAB, 0xE9, an apostrophe and a non-byte in front of each query part *)
Example C02_reach_partial6_inhabited :
  match m_parse_o "http://h/p?a b	c#f" with
  | Some u => list_eqb (ser u) (B "http://h/p?%23%09%E9%27a%20b%23%09%E9%27c#f") && m_fix u | None => false end = true
  /\ match m_join_o "http://h/a/b?q#f" "http:x y/../z?k" with
     | Some u => list_eqb (ser u) (B "http://h/a/z?%23%09%E9%27k") && m_fix u | None => false end = true
  /\ match m_join "http://h/a/b?q#f" "http:x y/../z?k" with
     | Some u => list_eqb (ser u) (B "http://h/a/z?k") && m_fix u | None => false end = true
  /\ match m_join "http://h/a/b?q#f" "http:/x" with
     | Some u => list_eqb (ser u) (B "http://h/x") && m_fix u | None => false end = true
  /\ match m_join "http://h/a/b?q#f" "http:" with
     | Some u => list_eqb (ser u) (B "http://h/a/b?q") && m_fix u | None => false end = true
  /\ match m_join "http://h/a/b?q#f" "http:#g" with
     | Some u => list_eqb (ser u) (B "http://h/a/b?q#g") && m_fix u | None => false end = true
  /\ match m_join_o "http://h/a/b?q#f" "?k'" with
     | Some u => list_eqb (ser u) (B "http://h/a/b?%23%09%E9%27k%27") && m_fix u | None => false end = true
  /\ match parse_url true mhp host_parse_opaque host_display None None (B "http://h/a/b?q#f") with
     | POk bu => same_ref bu (B "http:x") && same_ref bu (B "http:/x") && negb (same_ref bu (B "http://x"))
                 && negb (same_ref bu (B "https:x")) && nonfile_input (B "http:x") && negb (rel_ref (B "http:x"))
                 && file_input (B "file:x") && negb (nonfile_input (B "file:x"))
     | _ => false end = true.
Proof. exact reach6_example. Qed.

Example C02_reach_partial6_filebase :
  match m_join "file:///a/b" "https:\\x/y z" with
  | Some u => list_eqb (ser u) (B "https://x/y%20z") && m_fix u | None => false end = true
  /\ match parse_url true mhp host_parse_opaque host_display None None (B "file:///a/b") with
     | POk bu => is_file bu && abs_ref bu (B "https:\\x/y z") && negb (Known_file_drive bu) | _ => false end = true.
Proof. exact reach6_example_filebase. Qed.

(* P. the file class (v): a fifth canonical form, L3 for it, and the invariant of the file path state *)
(* Canonical file record (C02_File.file_ok; outside Known_file_drive):  "file://" [host] path ["?" q] ["#" f]  with no
   host or a host other than "localhost" whose display is a host text, is no drive letter and parses back to it; path
   segments canonical for a special scheme (good_seg_sp) that do not begin like a drive letter (wdl_like, the test of
   Known_file_drive), the first of several segments not empty; query clean for the special query set, fragment clean.
   P.1  the file path loop pushes canonical text unchanged - no drive-letter arm fires - up to the collapse of the
   leading slashes *)
Theorem C02_file_path_loop_canon : forall dbg pre segs done last rest hh,
  forallb fseg_ok segs = true -> fseg_ok last = true ->
  match rest with [] => True | c :: _ => is_qh c = true /\ is_tnl c = false end ->
  parse_path_loop dbg CUrlParser STFile (nlen pre) (segs_text segs ++ last ++ rest) (Bs pre done) (nlen (Bs pre done)) [] hh
  = POk (file_path_fixup STFile (nlen pre) (Bs pre (done ++ segs) ++ last), hh, rest).
Proof. exact file_loop_canon. Qed.
Print Assumptions C02_file_path_loop_canon.

(* P.2  L3 for the class: parsing the serialization of a canonical file record gives the record back (both entries of
   the file host state: with a host through parse_path_start, without through the extra slash and the collapse) *)
Theorem C02_L3_file : forall dbg hp hpo hd ho segs last q f, file_ok hp hd ho segs last q f ->
  parse_url dbg hp hpo hd None None (file_ser hd ho (path_text segs last) q f)
  = POk (file_curl hd ho (path_text segs last) q f).
Proof. exact reparse_file_form. Qed.
Check C02_L3_file : forall dbg hp hpo hd ho segs last q f, file_ok hp hd ho segs last q f ->
  parse_url dbg hp hpo hd None None (file_ser hd ho (path_text segs last) q f)
  = POk (file_curl hd ho (path_text segs last) q f).
Print Assumptions C02_L3_file.

(* P.3  the fifth form as a predicate on records: every FileCanon record is a fixpoint of re-parsing, well-formed, ASCII.
   That a parse / join RESULT with the file scheme outside Known_file_drive is FileCanon (L1 for parse_file) is Q.2
   (C02_parse_file_Canon5, C02_parse_CanonF) and R.3 (C02_join_file_base); P.4-P.6 are its path half. *)
Theorem C02_FileCanon_fixpoint : forall dbg hp hpo hd, HostRT hp hpo hd -> forall u, FileCanon hp hd u ->
  Fixpoint_of_reparse dbg hp hpo hd u /\ wf_b u = true /\ ascii (ser u).
Proof. exact FileCanon_fixpoint. Qed.
Check C02_FileCanon_fixpoint : forall dbg hp hpo hd, HostRT hp hpo hd -> forall u, FileCanon hp hd u ->
  parse_url dbg hp hpo hd None None (utf8_lossy (ser u)) = POk u /\ wf_b u = true /\ ascii (ser u).
Print Assumptions C02_FileCanon_fixpoint.

Example C02_file_ok_inhabited :
  file_ok ex_hp ex_hd (Some (HDomain (B "h.example"))) [B "a"] (B "b%20c") (Some (B "q")) (Some (B "f"))
  /\ file_ok ex_hp ex_hd None [] (B "x") None None
  /\ list_eqb (ser (file_curl ex_hd (Some (HDomain (B "h.example"))) (path_text [B "a"] (B "b%20c")) (Some (B "q")) (Some (B "f"))))
              (B "file://h.example/a/b%20c?q#f") = true
  /\ list_eqb (ser (file_curl ex_hd None (path_text [] (B "x")) None None)) (B "file:///x") = true.
Proof. exact file_ok_example. Qed.

(* P.4  L1, one end of a segment: for ANY segment text (clean for the path set, no separator) finish_segment for the
   file scheme - dot segments with both drive-letter refusals of pop_path / last_slash_can_be_removed, the
   normalisation of a drive-letter first segment (which clears the host flag) - keeps the shape
   pre "/" seg "/" ... "/" last  with canonical closed segments *)
Theorem C02_file_finish_segment : forall pre dbg segs cur (ews : bool) hh,
  forallb good_seg_sp segs = true -> clean T_PATH cur = true -> no_slash cur = true -> no_byte 92 cur = true ->
  exists segs' last' hh',
    finish_segment dbg STFile (nlen pre) (Bs pre segs ++ cur ++ (if ews then [47] else [])) (nlen (Bs pre segs)) ews hh
    = POk (Bs pre segs' ++ last', hh')
    /\ forallb good_seg_sp segs' = true /\ good_seg_sp last' = true /\ (ews = true -> last' = [])
    /\ (hh' = hh \/ hh' = false).
Proof. exact finish_inv_f. Qed.
Print Assumptions C02_file_finish_segment.

(* P.5  the persistence lemma: once the path begins with a normalised drive letter followed by '/' (D pre a ser:
   ser = pre "/" a ":" "/" ...) it does so after the whole loop, whatever the input (pop_path never pops it; the segment
   start may be the stale one left by the arm that inserts '/' after "C:") *)
Theorem C02_file_drive_persists : forall pre dbg a, is_alpha a = true -> forall l ser ss pend hh s' hh' rem,
  usv_list l -> usv_list pend -> D pre a ser -> (ss = nlen pre + 2 \/ nlen pre + 4 <= ss) ->
  parse_path_loop dbg CUrlParser STFile (nlen pre) l ser ss pend hh = POk (s', hh', rem) ->
  D pre a s' /\ hh' = hh /\ rem = cbb_rest l.
Proof. exact loop_drive. Qed.
Print Assumptions C02_file_drive_persists.

(* P.6  L1 for the file path state: from ANY input (scalar values) the loop, started on canonical closed segments,
   returns the collapse of a canonical path - host flag kept or cleared - or a path that begins with a normalised drive
   letter and '/' (the arm that inserts '/' after "C:" fired, F-C01-7; such a result is in Known_file_drive) *)
Theorem C02_file_path_loop_inv : forall pre dbg l segs cur pend hh s' hh' rem, usv_list l -> pend_ok_sp pend ->
  forallb good_seg_sp segs = true -> clean T_PATH cur = true -> no_slash cur = true -> no_byte 92 cur = true ->
  (is_normalized_wdl (segs_text segs ++ cur) = true -> pend = []) ->
  parse_path_loop dbg CUrlParser STFile (nlen pre) l (Bs pre segs ++ cur) (nlen (Bs pre segs)) pend hh = POk (s', hh', rem) ->
  rem = cbb_rest l /\ (good_out pre hh s' hh' \/ drive_out pre s').
Proof. exact loop_inv_f. Qed.
Check C02_file_path_loop_inv : forall pre dbg l segs cur pend hh s' hh' rem, usv_list l -> pend_ok_sp pend ->
  forallb good_seg_sp segs = true -> clean T_PATH cur = true -> no_slash cur = true -> no_byte 92 cur = true ->
  (is_normalized_wdl (segs_text segs ++ cur) = true -> pend = []) ->
  parse_path_loop dbg CUrlParser STFile (nlen pre) l (Bs pre segs ++ cur) (nlen (Bs pre segs)) pend hh = POk (s', hh', rem) ->
  rem = cbb_rest l
  /\ ((exists segs' last', s' = file_path_fixup STFile (nlen pre) (Bs pre segs' ++ last')
         /\ forallb good_seg_sp segs' = true /\ good_seg_sp last' = true /\ (hh' = hh \/ hh' = false))
      \/ (exists a, is_alpha a = true /\ exists X, s' = (pre ++ [47; a; 58; 47]) ++ X)).
Print Assumptions C02_file_path_loop_inv.

(* the hypotheses are met by the start of every file parse (no closed segment, nothing pending), and both drive-letter
   arms are real: "C|" is rewritten and clears the host flag; a tab after "c:" makes the loop insert '/' *)
Example C02_file_path_loop_inhabited :
  parse_path_loop true CUrlParser STFile 7 (B "C|/x") (B "file:///") 8 [] true = POk (B "file:///C:/x", false, [])
  /\ parse_path_loop true CUrlParser STFile 7 (9 :: B "x") (B "file:///c:") 8 [] false = POk (B "file:///c:/x", false, [])
  /\ parse_path_loop true CUrlParser STFile 7 (B "a/../C:/../b") (B "file:///") 8 [] false = POk (B "file:///C:/b", false, []).
Proof. exact file_loop_drive_arms. Qed.

(* Q. file records in histories: L1 for parse_file without a base, L2 for the query / fragment operations,
   the reach theorem C02_reach_partial7 *)
(* Q.1  host_no_wdl, a hypothesis on the host functions that L1 for parse_file needs: the display of a parsed host is no
   Windows drive letter - HostRT gives it for ':' (the authority scan stops there) but not for '|'; proved of the host
   model for every IDNA function satisfying IdnaOK ('|' and ':' are forbidden domain code points) *)
Theorem C02_host_no_wdl_model : forall idna, IdnaOK idna -> host_no_wdl (host_parse idna) host_display.
Proof. exact host_no_wdl_model. Qed.
Check C02_host_no_wdl_model : forall idna, IdnaOK idna ->
  forall s h, host_parse idna s = Ok h -> is_wdl (host_display h) = false.
Print Assumptions C02_host_no_wdl_model.

(* Q.2  L1 for parse_file without a base: EVERY result of Url::parse (any encoding override) on an input with the file
   scheme - all three entries: two slashes (file host state, "localhost", drive letter in host position), one slash,
   no slash - that is outside Known_file_drive is a canonical file record *)
Theorem C02_parse_file_Canon5 : forall dbg hp hpo hd, HostRT hp hpo hd -> host_above hp hpo hd ->
  (forall s, hp s <> Ok (HDomain [])) -> host_no_wdl hp hd ->
  forall ovr input sch rem u, usv_list input ->
  parse_scheme CUrlParser (input_new_trim_c0 input) = Some (sch, rem) -> scheme_type_of sch = STFile ->
  parse_url dbg hp hpo hd ovr None input = POk u ->
  Known_file_drive u = false -> FileCanon hp hd u.
Proof. exact parse_file_Canon5. Qed.
Check C02_parse_file_Canon5 : forall dbg hp hpo hd, HostRT hp hpo hd -> host_above hp hpo hd ->
  (forall s, hp s <> Ok (HDomain [])) -> host_no_wdl hp hd ->
  forall ovr input sch rem u, usv_list input ->
  parse_scheme CUrlParser (input_new_trim_c0 input) = Some (sch, rem) -> scheme_type_of sch = STFile ->
  parse_url dbg hp hpo hd ovr None input = POk u ->
  Known_file_drive u = false -> FileCanon hp hd u.
Print Assumptions C02_parse_file_Canon5.

(* every parse result without a base outside Known_file_drive - the whole constructor R4_parse - is of one of the
   five canonical forms *)
Theorem C02_parse_CanonF : forall dbg hp hpo hd, HostOK2 hp hpo hd -> host_nonempty hp hpo -> host_no_wdl hp hd ->
  forall ovr input u, usv_list input -> parse_url dbg hp hpo hd ovr None input = POk u ->
  Known_file_drive u = false -> CanonF hp hpo hd u.
Proof. exact parse_CanonF. Qed.
Check C02_parse_CanonF : forall dbg hp hpo hd, HostOK2 hp hpo hd -> host_nonempty hp hpo -> host_no_wdl hp hd ->
  forall ovr input u, usv_list input -> parse_url dbg hp hpo hd ovr None input = POk u ->
  Known_file_drive u = false -> Canon hp hpo hd u \/ FileCanon hp hd u.
Print Assumptions C02_parse_CanonF.

(* Q.3  L2 on canonical file records for the operations that replace query or fragment only *)
Theorem C02_set_fragment_File : forall dbg hp hd u fr u', FileCanon hp hd u -> usv_opt fr ->
  set_fragment dbg u fr = Some u' -> nlen (ser u') <= U32_MAX_P -> FileCanon hp hd u'.
Proof. exact set_fragment_File. Qed.
Print Assumptions C02_set_fragment_File.

Theorem C02_set_query_File : forall dbg hp hd u qr u', FileCanon hp hd u -> usv_opt qr ->
  set_query dbg u qr = Some u' -> nlen (ser u') <= U32_MAX_P -> FileCanon hp hd u'.
Proof. exact set_query_File. Qed.
Print Assumptions C02_set_query_File.

Theorem C02_qpm_File : forall dbg hp hpo hd, HostRT hp hpo hd -> forall u ops u', FileCanon hp hd u -> Forall C15_Ser.op_ok ops ->
  query_pairs_session dbg u ops = Some u' -> nlen (ser u') <= U32_MAX_P -> FileCanon hp hd u'.
Proof. exact qpm_File. Qed.
Print Assumptions C02_qpm_File.

Theorem C02_join_tail_File : forall dbg hp hpo hd ovr b input u, FileCanon hp hd b -> usv_list input -> tail_ref input = true ->
  parse_url dbg hp hpo hd ovr (Some b) input = POk u -> FileCanon hp hd u.
Proof. exact join_tail_File. Qed.
Print Assumptions C02_join_tail_File.

(* Q.4  the reach theorem: every record of a ReachC7 history (C02_Reach8: every no-base parse result outside
   Known_file_drive, file inputs included; on file records set_fragment / set_query / quirks search / quirks hash,
   query_pairs_mut sessions, tail joins; everything of ReachC6 from the non-file records) is a fixpoint *)
Theorem C02_reach_partial7 : forall dbg hp hpo hd, HostOK2 hp hpo hd -> host_nonempty hp hpo -> host_no_wdl hp hd -> forall u,
  ReachC7 dbg hp hpo hd u ->
  Fixpoint_of_reparse dbg hp hpo hd u /\ wf_b u = true /\ ascii (ser u).
Proof. exact reach_partial7. Qed.
Check C02_reach_partial7 : forall dbg hp hpo hd, HostOK2 hp hpo hd -> host_nonempty hp hpo -> host_no_wdl hp hd -> forall u,
  ReachC7 dbg hp hpo hd u ->
  parse_url dbg hp hpo hd None None (utf8_lossy (ser u)) = POk u /\ wf_b u = true /\ ascii (ser u).
Print Assumptions C02_reach_partial7.

Theorem C02_reach_partial7_in_statement : forall dbg hp hpo hd, HostOK2 hp hpo hd -> host_nonempty hp hpo -> host_no_wdl hp hd ->
  forall u, ReachC7 dbg hp hpo hd u -> Reachable4 dbg hp hpo hd u.
Proof. exact ReachC7_Reachable4. Qed.
Print Assumptions C02_reach_partial7_in_statement.

Theorem C02_reach_partial7_extends : forall dbg hp hpo hd, HostOK2 hp hpo hd -> host_nonempty hp hpo ->
  forall u, ReachC6 dbg hp hpo hd u -> ReachC7 dbg hp hpo hd u.
Proof. exact ReachC6_C7. Qed.
Print Assumptions C02_reach_partial7_extends.

Theorem C02_reach_partial7_model : forall dbg idna, IdnaOK idna -> forall u,
  ReachC7 dbg (host_parse idna) host_parse_opaque host_display u ->
  Fixpoint_of_reparse dbg (host_parse idna) host_parse_opaque host_display u /\ wf_b u = true /\ ascii (ser u).
Proof.
  exact (fun dbg idna OK => C02_reach_partial7 dbg _ _ _ (HostOK2_model idna OK) (host_nonempty_model idna) (host_no_wdl_model idna OK)).
Qed.
Print Assumptions C02_reach_partial7_model.

(* the hypotheses are met: the three entries of parse_file, setters and tail joins on file records, on the host model *)
Example C02_reach_partial7_inhabited :
  m_ok (m_parse "file://h.x/a/../b c?q#f") "file://h.x/b%20c?q#f" = true
  /\ m_ok (m_parse "file://localhost/x\y") "file:///x/y" = true
  /\ m_ok (m_parse "file:////x") "file:///x" = true
  /\ m_ok (m_parse "file:/x/./y") "file:///x/y" = true
  /\ m_ok (m_parse "file:x") "file:///x" = true
  /\ m_ok (m_hist "file:///a/b" [OSetFragment (Some (B "z")); OSetQuery (Some (B "k v")); OQHash (B "#w")]) "file:///a/b?k%20v#w" = true
  /\ m_ok (m_join "file://h.x/a/b?q#f" "?k") "file://h.x/a/b?k" = true
  /\ m_ok (m_join "file://h.x/a/b?q#f" "#g") "file://h.x/a/b?q#g" = true
  /\ tail_ref (B "?k") && file_tail_op (OQHash (B "#w")) && file_input (B "file:x") = true.
Proof. exact reach7_example. Qed.

(* R. file records in histories, second part: the other setters on file records, every join that
   involves the file scheme, the reach theorem C02_reach_partial8 *)
(* R.1  the credential and port setters of both APIs refuse a canonical file record (returned unchanged) *)
Theorem C02_file_setters_refused : forall dbg hp hpo hd u o u', FileCanon hp hd u -> file_refused_op o = true ->
  apply_op dbg hp hpo hd u o = Some u' -> u' = u.
Proof. exact file_refused. Qed.
Check C02_file_setters_refused : forall dbg hp hpo hd u o u', FileCanon hp hd u ->
  match o with OSetPort _ | OSetPassword _ | OSetUsername _ | OQUsername _ | OQPassword _ | OQPort _ => true | _ => false end = true ->
  apply_op dbg hp hpo hd u o = Some u' -> u' = u.
Print Assumptions C02_file_setters_refused.

(* R.2  Url::set_scheme (quirks protocol is set_scheme on the text before ':') on a canonical file record, for every
   argument: the record is unchanged (no host, or the change is refused) or becomes a canonical record of a special
   non-file scheme (the record had a host) *)
Theorem C02_set_scheme_File : forall dbg hp hpo hd u x u' s, FileCanon hp hd u ->
  set_scheme dbg u x = Some (u', s) -> nlen (ser u') <= U32_MAX_P -> u' = u \/ Canon hp hpo hd u'.
Proof. exact set_scheme_File. Qed.
Print Assumptions C02_set_scheme_File.

(* Url::set_host(None) on a canonical file record: the host text goes, the result is canonical (no length bound needed) *)
Theorem C02_set_host_none_File : forall dbg hp hpo hd u u' s, FileCanon hp hd u ->
  set_host dbg hp hpo hd u None = Some (u', s) -> FileCanon hp hd u'.
Proof. exact set_host_none_File. Qed.
Print Assumptions C02_set_host_none_File.

(* file_op8 o = the query / fragment setters of both APIs, the six port and credential setters, OSetScheme, OQProtocol,
   OSetHost None *)
Theorem C02_step_file8 : forall dbg hp hpo hd, HostOK2 hp hpo hd -> forall u o u', FileCanon hp hd u -> file_op8 o = true ->
  op_args_ok o -> apply_op dbg hp hpo hd u o = Some u' -> nlen (ser u') <= U32_MAX_P -> CanonF hp hpo hd u'.
Proof. exact step_file8_CanonF. Qed.
Print Assumptions C02_step_file8.

(* the path setters on a canonical file record.  The setter context of the file path loop is the URL-parser context on
   the text with '?' and '#' escaped (C02_path_loop_setter, L.4, is the same for the other scheme types) *)
Theorem C02_file_loop_setter : forall dbg ps l ser ss a b hh, usv_list l -> pend_eq a b ->
  parse_path_loop dbg CSetter STFile ps l ser ss a hh = parse_path_loop dbg CUrlParser STFile ps (qh_sub l) ser ss b hh.
Proof. exact loop_setter_sub_f. Qed.
Print Assumptions C02_file_loop_setter.

(* Url::set_path: the record has a host, or the argument starts with '/' or '\' (after tab / LF / CR removal);
   url::quirks::set_pathname: every argument *)
Theorem C02_set_path_File : forall dbg hp (hpo : list N -> result host) hd u x u', FileCanon hp hd u -> usv_list x -> has_host u || lead_slash x = true ->
  set_path dbg u x = Some u' -> nlen (ser u') <= U32_MAX_P -> Known_file_drive u' = false -> FileCanon hp hd u'.
Proof. exact set_path_File. Qed.
Check C02_set_path_File : forall dbg hp (hpo : list N -> result host) hd u x u', FileCanon hp hd u -> usv_list x ->
  has_host u || match inp_next x with Some (c, _) => is_slash_or_bslash c | None => false end = true ->
  set_path dbg u x = Some u' -> nlen (ser u') <= U32_MAX_P -> Known_file_drive u' = false -> FileCanon hp hd u'.
Print Assumptions C02_set_path_File.

Theorem C02_q_set_pathname_File : forall dbg hp (hpo : list N -> result host) hd u v u', FileCanon hp hd u -> usv_list v ->
  q_set_pathname dbg u v = Some u' -> nlen (ser u') <= U32_MAX_P -> Known_file_drive u' = false -> FileCanon hp hd u'.
Proof. exact q_set_pathname_File. Qed.
Print Assumptions C02_q_set_pathname_File.

(* outside the premise of C02_set_path_File the merge is different (first segment at path_start: ".." does not remove
   it); still a fixpoint on the witness *)
Example C02_file_set_path_no_slash :
  m_is (m_hist "file:///x" [OSetPath (B "a/../b")]) "file:///a/b" = true
  /\ m_is (m_hist "file:///x" [OSetPath (B "/a/../b")]) "file:///b" = true
  /\ file_path_op (file_curl host_display None (B "/x") None None) (OSetPath (B "a/../b")) = false.
Proof. exact file_set_path_no_slash. Qed.

(* R.3  joins.  A reference with the file scheme does not consult the base when the base is not a file URL or two
   slashes follow "file:" (any base at all) *)
Theorem C02_join_file_abs_eq : forall dbg hp hpo hd ovr b input, file_abs_ref b input = true ->
  parse_url dbg hp hpo hd ovr (Some b) input = parse_url dbg hp hpo hd ovr None input.
Proof. exact join_file_abs_eq. Qed.
Print Assumptions C02_join_file_abs_eq.

(* L1 for parse_file with a canonical file base, EVERY remaining input: two slashes, one slash (the base's host is
   kept), none (empty, query, fragment, path merged with the base's path, drive letter) *)
Theorem C02_parse_file_base : forall dbg hp hpo hd, HostRT hp hpo hd -> host_above hp hpo hd ->
  (forall s, hp s <> Ok (HDomain [])) -> host_no_wdl hp hd ->
  forall ovr ho segs last q0 f0 l u, file_ok hp hd ho segs last q0 f0 -> usv_list l ->
  parse_file dbg hp hd ovr CUrlParser STFile (Some (file_curl hd ho (path_text segs last) q0 f0)) l = POk u ->
  Known_file_drive u = false -> FileCanon hp hd u.
Proof. exact parse_file_base. Qed.
Print Assumptions C02_parse_file_base.

(* every reference without a scheme or with the file scheme against a canonical file base *)
Theorem C02_join_file_base : forall dbg hp hpo hd, HostRT hp hpo hd -> host_above hp hpo hd ->
  (forall s, hp s <> Ok (HDomain [])) -> host_no_wdl hp hd ->
  forall ovr b input u, FileCanon hp hd b -> usv_list input -> nonfile_input input = false ->
  parse_url dbg hp hpo hd ovr (Some b) input = POk u -> Known_file_drive u = false -> FileCanon hp hd u.
Proof. exact join_file_base. Qed.
Check C02_join_file_base : forall dbg hp hpo hd, HostRT hp hpo hd -> host_above hp hpo hd ->
  (forall s, hp s <> Ok (HDomain [])) -> host_no_wdl hp hd ->
  forall ovr b input u, FileCanon hp hd b -> usv_list input -> nonfile_input input = false ->
  parse_url dbg hp hpo hd ovr (Some b) input = POk u -> Known_file_drive u = false -> FileCanon hp hd u.
Print Assumptions C02_join_file_base.

(* every join against a canonical file base, whatever the reference (another scheme: the base is not consulted) *)
Theorem C02_join_file_any : forall dbg hp hpo hd, HostOK2 hp hpo hd -> host_nonempty hp hpo -> host_no_wdl hp hd ->
  forall ovr b input u, FileCanon hp hd b -> usv_list input ->
  parse_url dbg hp hpo hd ovr (Some b) input = POk u -> Known_file_drive u = false -> CanonF hp hpo hd u.
Proof. exact join_file_any. Qed.
Check C02_join_file_any : forall dbg hp hpo hd, HostOK2 hp hpo hd -> host_nonempty hp hpo -> host_no_wdl hp hd ->
  forall ovr b input u, FileCanon hp hd b -> usv_list input ->
  parse_url dbg hp hpo hd ovr (Some b) input = POk u -> Known_file_drive u = false ->
  Canon hp hpo hd u \/ FileCanon hp hd u.
Print Assumptions C02_join_file_any.

(* R.4  the reach theorem: every record of a ReachC8 history (C02_Reach9: ReachC7 and every join against a file
   record, base-free file references against any Reachable4 base, the operations file_op8 on file records) is a
   fixpoint; RC8_step_file_path adds quirks pathname and Url::set_path (file_path_op) on file records.
   Outside ReachC8 and inside Reachable4: on file records path_segments_mut sessions (R.6 has those with
   session_arg_nd) and Url::set_path with an argument without leading slash on a record without a host (on file records
   the host setters with an argument are outside Reachable4 itself: Known_F_C02_4); and whatever a history does after
   such a step. *)
Theorem C02_reach_partial8 : forall dbg hp hpo hd, HostOK2 hp hpo hd -> host_nonempty hp hpo -> host_no_wdl hp hd -> forall u,
  ReachC8 dbg hp hpo hd u ->
  Fixpoint_of_reparse dbg hp hpo hd u /\ wf_b u = true /\ ascii (ser u).
Proof. exact reach_partial8. Qed.
Check C02_reach_partial8 : forall dbg hp hpo hd, HostOK2 hp hpo hd -> host_nonempty hp hpo -> host_no_wdl hp hd -> forall u,
  ReachC8 dbg hp hpo hd u ->
  parse_url dbg hp hpo hd None None (utf8_lossy (ser u)) = POk u /\ wf_b u = true /\ ascii (ser u).
Print Assumptions C02_reach_partial8.

Theorem C02_reach_partial8_in_statement : forall dbg hp hpo hd, HostOK2 hp hpo hd -> host_nonempty hp hpo -> host_no_wdl hp hd ->
  forall u, ReachC8 dbg hp hpo hd u -> Reachable4 dbg hp hpo hd u.
Proof. exact ReachC8_Reachable4. Qed.
Print Assumptions C02_reach_partial8_in_statement.

(* ReachC8 is closed under the WHOLE join constructor of Reachable4: every join from a ReachC8 record whose result is
   outside Known_file_drive is a ReachC8 record (so the gap to Reachable4 lies in R4_step only) *)
Theorem C02_reach_partial8_join_closed : forall dbg hp hpo hd, HostOK2 hp hpo hd -> host_nonempty hp hpo -> host_no_wdl hp hd ->
  forall ovr b input u, ReachC8 dbg hp hpo hd b -> usv_list input ->
  parse_url dbg hp hpo hd ovr (Some b) input = POk u -> Known_file_drive u = false -> ReachC8 dbg hp hpo hd u.
Proof. exact ReachC8_join_closed. Qed.
Print Assumptions C02_reach_partial8_join_closed.

Theorem C02_reach_partial8_extends : forall dbg hp hpo hd, HostOK2 hp hpo hd -> host_nonempty hp hpo -> host_no_wdl hp hd ->
  forall u, ReachC7 dbg hp hpo hd u -> ReachC8 dbg hp hpo hd u.
Proof. exact ReachC7_C8. Qed.
Print Assumptions C02_reach_partial8_extends.

Theorem C02_reach_partial8_model : forall dbg idna, IdnaOK idna -> forall u,
  ReachC8 dbg (host_parse idna) host_parse_opaque host_display u ->
  Fixpoint_of_reparse dbg (host_parse idna) host_parse_opaque host_display u /\ wf_b u = true /\ ascii (ser u).
Proof.
  exact (fun dbg idna OK => C02_reach_partial8 dbg _ _ _ (HostOK2_model idna OK) (host_nonempty_model idna) (host_no_wdl_model idna OK)).
Qed.
Print Assumptions C02_reach_partial8_model.

(* the hypotheses are met: joins of every kind against a file base, a file reference against a non-file base, the
   operations file_op8 and file_path_op on file records, on the host model *)
Example C02_reach_partial8_inhabited :
  m_is (m_join "file://h.x/a/b?q#f" "c/../d e") "file://h.x/a/d%20e" = true
  /\ m_is (m_join "file://h.x/a/b?q#f" "/x/./y?k") "file://h.x/x/y?k" = true
  /\ m_is (m_join "file://h.x/a/b" "//g.y/z") "file://g.y/z" = true
  /\ m_is (m_join "file://h.x/a/b" "file:c#g") "file://h.x/a/c#g" = true
  /\ m_is (m_join "file://h.x/a/b" "\\localhost\z") "file:///z" = true
  /\ m_is (m_join "file://h.x/a/b" "https://g.y/z") "https://g.y/z" = true
  /\ m_is (m_join "http://h.x/a/b" "file:c") "file:///c" = true
  /\ m_is (m_join "http://h.x/a/b" "file://g.y/c") "file://g.y/c" = true
  /\ m_is (m_hist "file://h.x/a" [OSetPort (Some 8080); OSetUsername (B "u"); OSetPassword (Some (B "p")); OQPort (B "1")]) "file://h.x/a" = true
  /\ m_is (m_hist "file://h.x/a b?q#f" [OSetScheme (B "https")]) "https://h.x/a%20b?q#f" = true
  /\ m_is (m_hist "file:///a" [OSetScheme (B "http"); OQProtocol (B "ws:")]) "file:///a" = true
  /\ m_is (m_hist "file://h.x/a?q" [OSetHost None]) "file:///a?q" = true
  /\ m_is (m_hist "file://h.x/x" [OSetPath (B "a/../b?c")]) "file://h.x/b%3Fc" = true
  /\ m_is (m_hist "file:///x" [OSetPath (B "\\a/../b")]) "file:///b" = true
  /\ m_is (m_hist "file:///x" [OQPathname (B "a/../b#c")]) "file:///b%23c" = true
  /\ file_abs_ref (file_curl host_display None (B "/a") None None) (B "file://g.y/c")
     && file_path_op (file_curl host_display None (B "/x") None None) (OSetPath (B "\\a/../b"))
     && file_op8 (OSetHost None) && file_op8 (OQProtocol (B "ws:")) && file_op8 (OSetPort (Some 8080)) = true.
Proof. exact reach8_example. Qed.

(* R.5  outside the history quantifier: Url::from_file_path / from_directory_path (unix model, Model/FilePath.v) give
   canonical file records - hence fixpoints, by C02_FileCanon_fixpoint - when the path has no ".." component and the
   result is outside Known_file_drive; with a ".." component the result is NOT a fixpoint (F-C02-5) *)
Theorem C02_from_file_path_File : forall hp hd p u, bytes p -> FilePath.from_file_path p = FilePath.FOk u ->
  Forall (fun k => k <> [46; 46]) (C20_Path.kept p) -> Known_file_drive u = false -> FileCanon hp hd u.
Proof. exact C02_FilePathConv.from_file_path_File. Qed.
Print Assumptions C02_from_file_path_File.

Theorem C02_from_directory_path_File : forall hp hd p u, bytes p -> FilePath.from_directory_path p = FilePath.FOk u ->
  Forall (fun k => k <> [46; 46]) (C20_Path.kept p) -> Known_file_drive u = false -> FileCanon hp hd u.
Proof. exact C02_FilePathConv.from_directory_path_File. Qed.
Print Assumptions C02_from_directory_path_File.

Example C02_from_file_path_inhabited :
  match FilePath.from_file_path (B "/a/./b c//%2e") with
  | FilePath.FOk u => list_eqb (ser u) (B "file:///a/b%20c/%252e") && m_fix u && negb (Known_file_drive u)
             && forallb (fun k => negb (list_eqb k [46; 46])) (C20_Path.kept (B "/a/./b c//%2e"))
  | _ => false end = true
  /\ match FilePath.from_directory_path (B "/a/b") with
     | FilePath.FOk u => list_eqb (ser u) (B "file:///a/b/") && m_fix u | _ => false end = true
  /\ match FilePath.from_file_path (B "/a/../b") with
     | FilePath.FOk u => list_eqb (ser u) (B "file:///a/../b") && negb (m_fix u) && negb (Known_file_drive u)
     | _ => false end = true.
Proof. exact C02_FilePathConv.from_file_path_example. Qed.

(* F. every excluded class contains a history that is not a fixpoint *)
Theorem C02_F_C03_5_refuted :
  witness_step (fun u o => Known_F_C03_5 u o) "non-spec:/.//double" (OSetIpHost (HIpv4 2130706433))
               "non-spec://127.0.0.1/.//double" = true
  /\ witness_step (fun u o => Known_F_C03_5 u o) "a:/.//x" (OSetPath (B "/y")) "a:/./y" = true.
Proof. exact F_C03_5_refuted. Qed.
Print Assumptions C02_F_C03_5_refuted.

Theorem C02_F_C02_3_refuted :
  witness_step (fun u o => Known_F_C02_3 u o) "about:blank" (OSetPath (B "#f")) "about:#f" = true
  /\ witness_step (fun u o => Known_F_C02_3 u o) "a:b" (OSetPath (B "c ")) "a:c " = true.
Proof. exact F_C02_3_refuted. Qed.
Print Assumptions C02_F_C02_3_refuted.

Theorem C02_F_C02_2_refuted :
  witness_step (fun u o => Known_F_C02_2 u o) "a://host//x" (OSetHost None) "a://x" = true.
Proof. exact F_C02_2_refuted. Qed.
Print Assumptions C02_F_C02_2_refuted.

Theorem C02_F_C02_8_refuted :
  witness_step (Known_F_C02_8 true toy_hp toy_hp toy_hd) "a:/p" (OSetPath (B "//x")) "a://x" = true
  /\ witness_step (Known_F_C02_8 true toy_hp toy_hp toy_hd) "a:/p" (OSetPath (B "/.//x")) "a://x" = true.
Proof. exact F_C02_8_refuted. Qed.
Print Assumptions C02_F_C02_8_refuted.

Theorem C02_F_C02_4_refuted :
  witness_step (fun u o => Known_F_C02_4 u o) "a://h:80/" (OSetHost (Some [])) "a://:80/" = true.
Proof. exact F_C02_4_refuted. Qed.
Print Assumptions C02_F_C02_4_refuted.

(* F-C02-9: set_ip_host with an IPv4 address on a URL whose scheme is not special - same text and offsets, host
   kind Ipv4 vs Domain after re-parsing; the step is outside known_step, the step classes of Reachable (second conjunct) *)
Theorem C02_F_C02_9_refuted :
  witness_step Known_F_C02_9 "a://x/" (OSetIpHost (HIpv4 2130706433)) "a://127.0.0.1/" = true
  /\ match toy_parse "a://x/" with
     | POk u => negb (known_step true toy_hp toy_hp toy_hd u (OSetIpHost (HIpv4 2130706433)))
                && match toy_apply u (OSetIpHost (HIpv4 2130706433)) with
                   | Some u' => hi_eqb (hosti u') (HI_Ipv4 2130706433)
                                && match toy_reparse u' with
                                   | POk v => list_eqb (ser v) (ser u') && hi_eqb (hosti v) HI_Domain
                                   | _ => false
                                   end
                   | None => false
                   end
     | _ => false
     end = true.
Proof. exact F_C02_9_refuted. Qed.
Print Assumptions C02_F_C02_9_refuted.

(* the same on the parser model linked with the host model (Model/Host.v, idna_clean) *)
Theorem C02_F_C02_9_model :
  match mparse (B "a://x/") with
  | POk u =>
      let o := OSetIpHost (HIpv4 2130706433) in
      negb (known_step true (host_parse idna_clean) host_parse_opaque host_display u o)
      && Known_F_C02_9 u o
      && known_step2 true (host_parse idna_clean) host_parse_opaque host_display u o
      && match apply_op true (host_parse idna_clean) host_parse_opaque host_display u o with
         | Some u' =>
             list_eqb (ser u') (B "a://127.0.0.1/") && hi_eqb (hosti u') (HI_Ipv4 2130706433)
             && match mparse (utf8_lossy (ser u')) with
                | POk v => list_eqb (ser v) (ser u') && hi_eqb (hosti v) HI_Domain && negb (url_eqb v u')
                | _ => false
                end
         | None => false
         end
  | _ => false
  end = true.
Proof. exact F_C02_9_model. Qed.
Print Assumptions C02_F_C02_9_model.

Theorem C02_F_C02_1_refuted :
  match toy_parse "file://x.y///c:" with
  | POk u => Known_file_drive u && list_eqb (ser u) (B "file://x.y/c:")
             && match toy_reparse u with
                | POk v => list_eqb (ser v) (B "file:///c:") && negb (url_eqb v u)
                | _ => false
                end
  | _ => false
  end = true.
Proof. exact F_C02_1_refuted. Qed.
Print Assumptions C02_F_C02_1_refuted.

(* R.6  path_segments_mut sessions on file records: the reach theorem C02_reach_partial9.
   ReachC9 (Proofs/C02_Reach10.v) = every constructor of ReachC8 and RC9_psm_file: on a file record of the history a
   path_segments_mut session (any sequence of clear / pop / pop_if_empty / push / extend) with the premises of
   C06_psm_canon_file - session_arg_nd ops = true (computable on the arguments: no pushed segment begins, after the removal
   of TAB / LF / CR, with an ASCII letter followed by ':' or '|'), Forall psm_op_usv ops (the arguments are &str), the
   session returns (u', SOk), nlen (ser u') <= u32::MAX.  All are constructors of one inductive relation, so every
   step of ReachC8 may follow a session.  RC9_psm_file keeps the invariant 'Canon or FileCanon'
   (C02_psm_file_CanonF, from Proofs/C06_SegFileClsEx.psm_FileCanon_arg = C06_psm_canon_file).
   Outside ReachC9 and inside Reachable4, on file records: sessions that push a drive-letter-like segment
   (session_arg_nd = false; some of them leave Known_file_drive untouched, e.g. push("c:d") below a first segment) and
   Url::set_path with an argument without leading slash on a record without a host; and whatever a history does after
   such a step. *)
From RU Require Import Proofs.C06_Segments Proofs.C06_SegFileClsEx Proofs.C02_Reach10.

Theorem C02_psm_file_CanonF : forall dbg hp hpo hd, HostOK2 hp hpo hd -> forall u ops u',
  (Canon hp hpo hd u \/ FileCanon hp hd u) -> is_file u = true -> session_arg_nd ops = true -> Forall psm_op_usv ops ->
  path_segments_session dbg u ops = Some (u', SOk) -> nlen (ser u') <= U32_MAX_P ->
  Canon hp hpo hd u' \/ FileCanon hp hd u'.
Proof. exact psm_file_CanonF. Qed.
Check C02_psm_file_CanonF : forall dbg hp hpo hd, HostOK2 hp hpo hd -> forall u ops u',
  (Canon hp hpo hd u \/ FileCanon hp hd u) -> is_file u = true -> session_arg_nd ops = true -> Forall psm_op_usv ops ->
  path_segments_session dbg u ops = Some (u', SOk) -> nlen (ser u') <= U32_MAX_P ->
  Canon hp hpo hd u' \/ FileCanon hp hd u'.
Print Assumptions C02_psm_file_CanonF.

Theorem C02_ReachC9_CanonF : forall dbg hp hpo hd, HostOK2 hp hpo hd -> host_nonempty hp hpo -> host_no_wdl hp hd -> forall u,
  ReachC9 dbg hp hpo hd u -> Canon hp hpo hd u \/ FileCanon hp hd u.
Proof. exact ReachC9_CanonF. Qed.
Check C02_ReachC9_CanonF : forall dbg hp hpo hd, HostOK2 hp hpo hd -> host_nonempty hp hpo -> host_no_wdl hp hd -> forall u,
  ReachC9 dbg hp hpo hd u -> Canon hp hpo hd u \/ FileCanon hp hd u.
Print Assumptions C02_ReachC9_CanonF.

Theorem C02_reach_partial9 : forall dbg hp hpo hd, HostOK2 hp hpo hd -> host_nonempty hp hpo -> host_no_wdl hp hd -> forall u,
  ReachC9 dbg hp hpo hd u ->
  Fixpoint_of_reparse dbg hp hpo hd u /\ wf_b u = true /\ ascii (ser u).
Proof. exact reach_partial9. Qed.
Check C02_reach_partial9 : forall dbg hp hpo hd, HostOK2 hp hpo hd -> host_nonempty hp hpo -> host_no_wdl hp hd -> forall u,
  ReachC9 dbg hp hpo hd u ->
  parse_url dbg hp hpo hd None None (utf8_lossy (ser u)) = POk u /\ wf_b u = true /\ ascii (ser u).
Print Assumptions C02_reach_partial9.

Theorem C02_reach_partial9_in_statement : forall dbg hp hpo hd, HostOK2 hp hpo hd -> host_nonempty hp hpo -> host_no_wdl hp hd ->
  forall u, ReachC9 dbg hp hpo hd u -> Reachable4 dbg hp hpo hd u.
Proof. exact ReachC9_Reachable4. Qed.
Print Assumptions C02_reach_partial9_in_statement.

(* ReachC9 is closed under the WHOLE join constructor of Reachable4 (as ReachC8 is: C02_reach_partial8_join_closed) *)
Theorem C02_reach_partial9_join_closed : forall dbg hp hpo hd, HostOK2 hp hpo hd -> host_nonempty hp hpo -> host_no_wdl hp hd ->
  forall ovr b input u, ReachC9 dbg hp hpo hd b -> usv_list input ->
  parse_url dbg hp hpo hd ovr (Some b) input = POk u -> Known_file_drive u = false -> ReachC9 dbg hp hpo hd u.
Proof. exact ReachC9_join_closed. Qed.
Print Assumptions C02_reach_partial9_join_closed.

Theorem C02_reach_partial9_extends : forall dbg hp hpo hd u, ReachC8 dbg hp hpo hd u -> ReachC9 dbg hp hpo hd u.
Proof. exact ReachC8_C9. Qed.
Print Assumptions C02_reach_partial9_extends.

Theorem C02_reach_partial9_model : forall dbg idna, IdnaOK idna -> forall u,
  ReachC9 dbg (host_parse idna) host_parse_opaque host_display u ->
  Fixpoint_of_reparse dbg (host_parse idna) host_parse_opaque host_display u /\ wf_b u = true /\ ascii (ser u).
Proof.
  exact (fun dbg idna OK => C02_reach_partial9 dbg _ _ _ (HostOK2_model idna OK) (host_nonempty_model idna) (host_no_wdl_model idna OK)).
Qed.
Print Assumptions C02_reach_partial9_model.

(* the hypotheses are met: file:///tmp/a, session push("b c"), then set_fragment("z") - as a computed history and as a
   derivation of ReachC9 (RC9_parse, RC9_psm_file, RC9_step_file) on the host model *)
Example C02_reach_partial9_inhabited : exists u0 u1 u2,
  parse_url true mhp host_parse_opaque host_display None None (B "file:///tmp/a") = POk u0
  /\ path_segments_session true u0 [PPush (B "b c")] = Some (u1, SOk)
  /\ apply_op true mhp host_parse_opaque host_display u1 (OSetFragment (Some (B "z"))) = Some u2
  /\ ser u2 = B "file:///tmp/a/b%20c#z"
  /\ ReachC9 true mhp host_parse_opaque host_display u2.
Proof. exact reach9_history. Qed.

Example C02_reach_partial9_sessions :
  m_session_ok "file:///tmp/a" [PPush (B "b c")] "file:///tmp/a/b%20c" = true
  /\ m_is (m_hist "file:///tmp/a" [OPathSegments [PPush (B "b c")]; OSetFragment (Some (B "z"))]) "file:///tmp/a/b%20c#z" = true
  /\ m_session_ok "file://h.x/a/b?q#f" [PPop; PPush (B "c d"); PExtend [B ".."; B "e/f"]; PPopIfEmpty] "file://h.x/a/c%20d/e%2Ff?q#f" = true
  /\ m_is (m_hist "file://h.x/a/b?q#f" [OPathSegments [PPop; PPush (B "c d"); PExtend [B ".."; B "e/f"]; PPopIfEmpty]; OSetQuery None;
                                        OPathSegments [PClear; PPush (B "x")]]) "file://h.x/x#f" = true
  /\ session_arg_nd [PPush (B "b c")] && session_arg_nd [PPop; PPush (B "c d"); PExtend [B ".."; B "e/f"]; PPopIfEmpty]
     && session_arg_nd [PClear; PPush (B "x")] && negb (session_arg_nd [PClear; PPush (B "C|")]) = true
  /\ match m_session "file:///tmp/a" [PClear; PPush (B "C|")] with
     | Some (u, SOk) => list_eqb (ser u) (B "file:///C:") && Known_file_drive u
     | _ => false
     end = true.
Proof. exact reach9_example. Qed.
