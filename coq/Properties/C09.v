(* Properties/C09.v - host parsing and serialization.  Statements; each proof applies the lemmas named below.
   Lemmas: Proofs/C09_V6.v, C09_V6rt.v, C09_V6form.v, C09_V4.v, C09_Wf.v, C09_Host.v, C09_V6sim.v, C09_V6total.v;
   the host model against the hypothesis records of the URL-level theorems and against the Standard's host
   parser: Proofs/C09_Inst.v, C09_InstSpec.v, Inst_Host.v (last sections). *)
From Coq Require Import String.
From RU Require Import Model.Uts46 Proofs.Idna_Known Proofs.Idna_Hyp Proofs.C09_InstIdna.
From RU Require Import Model.UrlRecord Model.Parser Model.Setters Model.WF Model.Origin Spec.Whatwg Spec.WhatwgHostParse
  Proofs.C02_Reach Proofs.C02_AuthParts Proofs.C02_Auth Proofs.C02_AuthMain
  Proofs.C05_Enc Proofs.C05_Parser Proofs.C05_Setters Proofs.C05_History Proofs.C05_Sharp Proofs.C06_Host Proofs.C06_Main
  Proofs.C16_Origin Proofs.C16_RT6Model Proofs.C09_Inst Proofs.C09_InstSpec Proofs.Inst_Host.
From RU Require Import Base.Prelude Base.Utf8 Model.AsciiSet Gen.Tables Model.PercentEncoding Model.HostT Model.Host
  Spec.WhatwgHost Proofs.C09_V6 Proofs.C09_V6rt Proofs.C09_V6form Proofs.C09_V4 Proofs.C09_Wf Proofs.C09_Host
  Proofs.C09_V4spec Proofs.C09_V6spec Proofs.C09_Reject Proofs.C09_V6sim Proofs.C09_V6total.

(* ---- the regenerated literal sets are the Standard's ---- *)
Theorem C09_tables :
  T_HOST_INVALID_HOST_CHARS = Spec.forbidden_host_code_points
  /\ (forall b, b < 256 -> should_encode T_CONTROLS b = ((b <=? 31) || (126 <? b)))
  /\ (forall c, c < 128 -> memb c T_HOST_IDNA_DENIED = (Spec.forbidden_domain_code_point c || is_upper c)).
Proof. exact (conj invalid_host_is_spec (conj controls_spec denied_spec)). Qed.
Check C09_tables :
  T_HOST_INVALID_HOST_CHARS = Spec.forbidden_host_code_points
  /\ (forall b, b < 256 -> should_encode T_CONTROLS b = ((b <=? 31) || (126 <? b)))
  /\ (forall c, c < 128 -> memb c T_HOST_IDNA_DENIED = (Spec.forbidden_domain_code_point c || is_upper c)).
Print Assumptions C09_tables.

(* ---- IPv4: every valid spelling has its positional value ----
   ps: 1-4 parts, each (radix, digit string) with the digits valid for the radix (decimal without
   superfluous leading zero, "0"+octal digits, "0x"/"0X"+hex digits, possibly none); in_range: all but
   the last <= 255, the last < 256^(5-n); optional trailing dot. *)
Theorem C09_ipv4_value : forall ps dot, Forall part_ok ps -> in_range (map pvalue ps) ->
  parse_ipv4addr (spell_addr ps dot) = XOk (positional (map pvalue ps)).
Proof. exact parse_ipv4addr_value. Qed.
Check C09_ipv4_value : forall ps dot, Forall part_ok ps -> in_range (map pvalue ps) ->
  parse_ipv4addr (spell_addr ps dot) = XOk (positional (map pvalue ps)).
Print Assumptions C09_ipv4_value.

(* ---- IPv6: parse after write is the identity on all 2^128 addresses ---- *)
Theorem C09_ipv6_rt : forall a, length a = 8%nat -> Forall (fun x => x < 65536) a ->
  parse_ipv6addr (write_ipv6 a) = XOk a.
Proof. exact parse_write_ipv6. Qed.
Check C09_ipv6_rt : forall a, length a = 8%nat -> Forall (fun x => x < 65536) a ->
  parse_ipv6addr (write_ipv6 a) = XOk a.
Print Assumptions C09_ipv6_rt.

(* ---- IPv6 output form: the layout around (cs, ce), which is exactly the first longest run of two
   or more zero pieces (or nothing), every piece in lower-case hex without leading zeros ---- *)
Theorem C09_ipv6_form : forall a, length a = 8%nat ->
  (let '(cs, ce) := longest_zero_sequence a in
   write_ipv6 a = v6_layout a cs ce /\ first_longest_run a cs ce)
  /\ (forall v, v < 65536 ->
        Forall (fun c => is_lower_hex c = true) (hex4 v) /\ (1 <= length (hex4 v) <= 4)%nat
        /\ hex_fold (hex4 v) 0 = Some v /\ no_leading_zero v (hex4 v) = true).
Proof.
  intros a H. split; [|exact hex4_form].
  pose proof (write_ipv6_layout a H) as L. pose proof (lzs_first_longest a H) as F.
  destruct (longest_zero_sequence a). exact (conj L F).
Qed.
Check C09_ipv6_form : forall a, length a = 8%nat ->
  (let '(cs, ce) := longest_zero_sequence a in
   write_ipv6 a = v6_layout a cs ce /\ first_longest_run a cs ce)
  /\ (forall v, v < 65536 ->
        Forall (fun c => is_lower_hex c = true) (hex4 v) /\ (1 <= length (hex4 v) <= 4)%nat
        /\ hex_fold (hex4 v) 0 = Some v /\ no_leading_zero v (hex4 v) = true).
Print Assumptions C09_ipv6_form.

(* the same, cross-checked by computation over all 256 zero patterns *)
Theorem C09_ipv6_form_patterns :
  all_below 256 (fun k => flb_lzs (pat k)) = true /\ all_below 256 (fun k => lzs_shape_b (pat k)) = true.
Proof. exact (conj flb_sweep lzs_shape_sweep). Qed.
Print Assumptions C09_ipv6_form_patterns.

(* ---- parser results are well formed: eight u16 pieces, a u32 ---- *)
Theorem C09_wf : (forall s a, parse_ipv6addr s = XOk a -> length a = 8%nat /\ Forall (fun x => x < 65536) a)
  /\ (forall s a, parse_ipv4addr s = XOk a -> a < 4294967296).
Proof. exact (conj parse_ipv6addr_wf parse_ipv4addr_bound). Qed.
Check C09_wf : (forall s a, parse_ipv6addr s = XOk a -> length a = 8%nat /\ Forall (fun x => x < 65536) a)
  /\ (forall s a, parse_ipv4addr s = XOk a -> a < 4294967296).
Print Assumptions C09_wf.

(* ---- Display then parse returns the same Host ----
   IPv6 hosts: unconditionally, for both parsers.  Opaque hosts: unconditionally.  Hosts returned by
   Host::parse (domains, IPv4): relative to IdnaOK idna (the oracle's outputs are ASCII outside the deny
   list host.rs passes, fixed points of the oracle, and dotted-decimal text is mapped to itself).
   IdnaOK holds of the oracle idna_clean (idna_clean_ok) but NOT of the IDNA model: the clause idna_fix fails on
   the class Known_C10_long (C09_long_model below: model_long_not_IdnaOK, class_answer_not_IdnaOK), so the third
   clause says nothing about the idna crate as it stands.  The forms that do apply: IdnaOK2 (holds of the
   uts46 model, C09_IdnaOK2_uts46) with the capped oracle (C09_IdnaOK2_cap) or a clean run (the C09_inst2 theorems). *)
Theorem C09_display_rt :
  (forall idna a, length a = 8%nat /\ Forall (fun x => x < 65536) a ->
     host_parse idna (host_display (HIpv6 a)) = Ok (HIpv6 a)
     /\ host_parse_opaque (host_display (HIpv6 a)) = Ok (HIpv6 a))
  /\ (forall input h, usv_list input -> host_parse_opaque input = Ok h ->
        host_parse_opaque (host_display h) = Ok h)
  /\ (forall idna, IdnaOK idna -> forall input h, host_parse idna input = Ok h ->
        host_parse idna (host_display h) = Ok h).
Proof.
  split; [|split].
  - intros idna a Hw. destruct (ipv6_display_rt idna a Hw) as [H1 H2].
    exact (conj (x_ok_host_parse _ _ _ H1) (x_ok_host_parse_opaque _ _ H2)).
  - intros input h Hu H.
    exact (x_ok_host_parse_opaque _ _ (opaque_display_rt input h Hu (host_parse_opaque_ok_x _ _ H))).
  - intros idna OK input h H.
    exact (x_ok_host_parse _ _ _ (special_display_rt idna OK input h (host_parse_ok_x _ _ _ H))).
Qed.
Check C09_display_rt :
  (forall idna a, length a = 8%nat /\ Forall (fun x => x < 65536) a ->
     host_parse idna (host_display (HIpv6 a)) = Ok (HIpv6 a)
     /\ host_parse_opaque (host_display (HIpv6 a)) = Ok (HIpv6 a))
  /\ (forall input h, usv_list input -> host_parse_opaque input = Ok h ->
        host_parse_opaque (host_display h) = Ok h)
  /\ (forall idna, IdnaOK idna -> forall input h, host_parse idna input = Ok h ->
        host_parse idna (host_display h) = Ok h).
Print Assumptions C09_display_rt.

(* IPv4 text written by Display parses back without going through the oracle *)
Theorem C09_ipv4_display : forall a, a < 4294967296 ->
  parse_ipv4addr (ipv4_display a) = XOk a /\ ends_in_a_number (ipv4_display a) = true.
Proof. exact (fun a H => conj (parse_ipv4_display a H) (proj2 (proj2 (ipv4_display_digits a H)))). Qed.
Check C09_ipv4_display : forall a, a < 4294967296 ->
  parse_ipv4addr (ipv4_display a) = XOk a /\ ends_in_a_number (ipv4_display a) = true.
Print Assumptions C09_ipv4_display.

(* ---- domains: what Host::parse returns as a domain is what the oracle returned for the
   percent-decoded bytes, non-empty, not ending in a number; relative to IdnaOK it is lower-case ASCII
   without forbidden domain code points (at this revision host.rs has no check of its own after
   IDNA: the deny list is an argument of the idna call) ---- *)
Theorem C09_domain : forall idna input d, host_parse idna input = Ok (HDomain d) ->
  (idna (decode (utf8_encode input)) = Some d /\ d <> [] /\ ends_in_a_number d = false)
  /\ (IdnaOK idna ->
      Forall (fun c => c < 128 /\ is_upper c = false /\ Spec.forbidden_domain_code_point c = false) d).
Proof.
  intros idna input d H. pose proof (host_parse_ok_x _ _ _ H) as Hx.
  exact (conj (parse_domain idna input d Hx) (fun OK => domain_form idna OK input d Hx)).
Qed.
Check C09_domain : forall idna input d, host_parse idna input = Ok (HDomain d) ->
  (idna (decode (utf8_encode input)) = Some d /\ d <> [] /\ ends_in_a_number d = false)
  /\ (IdnaOK idna ->
      Forall (fun c => c < 128 /\ is_upper c = false /\ Spec.forbidden_domain_code_point c = false) d).
Print Assumptions C09_domain.

(* ---- every host that ends in a number is the address the Standard's IPv4 parser computes, or is
   rejected (never a domain) ---- *)
Theorem C09_ipv4_reject : forall idna input dom, starts_with 91 input = false ->
  idna (decode (utf8_encode input)) = Some dom -> ends_in_a_number dom = true ->
  host_parse idna input =
  match Spec.ipv4_parse dom with Some a => Ok (HIpv4 a) | None => Err InvalidIpv4Address end.
Proof. exact number_host_spec. Qed.
Check C09_ipv4_reject : forall idna input dom, starts_with 91 input = false ->
  idna (decode (utf8_encode input)) = Some dom -> ends_in_a_number dom = true ->
  host_parse idna input =
  match Spec.ipv4_parse dom with Some a => Ok (HIpv4 a) | None => Err InvalidIpv4Address end.
Print Assumptions C09_ipv4_reject.

(* ---- the IPv4 side of the model is the Standard's, on all inputs (parse_ipv4addr "" panics in the
   Rust - numbers.pop().expect - and is never called with it) ---- *)
Theorem C09_ipv4_spec :
  (forall s, ends_in_a_number s = Spec.ends_in_a_number s)
  /\ (forall s, s <> [] -> parse_ipv4addr s = match Spec.ipv4_parse s with Some a => XOk a | None => XErr InvalidIpv4Address end)
  /\ parse_ipv4addr [] = XPanic 314.
Proof. exact (conj ends_in_a_number_spec (conj parse_ipv4addr_spec parse_ipv4addr_empty)). Qed.
Check C09_ipv4_spec :
  (forall s, ends_in_a_number s = Spec.ends_in_a_number s)
  /\ (forall s, s <> [] -> parse_ipv4addr s = match Spec.ipv4_parse s with Some a => XOk a | None => XErr InvalidIpv4Address end)
  /\ parse_ipv4addr [] = XPanic 314.
Print Assumptions C09_ipv4_spec.

(* ---- IPv6 against the Standard.  Full statement: serializer and parser equal the Standard's on all
   inputs (C09_ipv6_spec below).  Parts of it: the serializer on all addresses; the parser inverts the
   Standard's serializer; parser equality on all strings of length <= 5 over {1 f F : . 2 5 g} (an
   instance of C09_ipv6_parse_all). ---- *)
Definition C09_ipv6_spec_statement : Prop :=
  (forall a, length a = 8%nat /\ Forall (fun x => x < 65536) a -> write_ipv6 a = Spec.ipv6_serialize a)
  /\ (forall s, usv_list s -> parse_ipv6addr (utf8_encode s) =
                match Spec.ipv6_parse s with Some a => XOk a | None => XErr InvalidIpv6Address end).
Theorem C09_ipv6_spec_partial :
  (forall a, length a = 8%nat /\ Forall (fun x => x < 65536) a -> write_ipv6 a = Spec.ipv6_serialize a)
  /\ (forall a, length a = 8%nat /\ Forall (fun x => x < 65536) a -> parse_ipv6addr (Spec.ipv6_serialize a) = XOk a)
  /\ (forall s, In s (all_strings [49; 102; 70; 58; 46; 50; 53; 103] 5) ->
        parse_ipv6addr s = match Spec.ipv6_parse s with Some a => XOk a | None => XErr InvalidIpv6Address end).
Proof. exact (conj write_ipv6_spec (conj parse_spec_serialize (fun s _ => ipv6_parse_spec_bytes s))). Qed.
Check C09_ipv6_spec_partial :
  (forall a, length a = 8%nat /\ Forall (fun x => x < 65536) a -> write_ipv6 a = Spec.ipv6_serialize a)
  /\ (forall a, length a = 8%nat /\ Forall (fun x => x < 65536) a -> parse_ipv6addr (Spec.ipv6_serialize a) = XOk a)
  /\ (forall s, In s (all_strings [49; 102; 70; 58; 46; 50; 53; 103] 5) ->
        parse_ipv6addr s = match Spec.ipv6_parse s with Some a => XOk a | None => XErr InvalidIpv6Address end).
Print Assumptions C09_ipv6_spec_partial.

(* the full statement (Proofs/C09_V6sim.v: simulation of the Standard's pointer machine by the model's
   index/fuel loops, on the bytes of the string) *)
Theorem C09_ipv6_spec : C09_ipv6_spec_statement.
Proof. exact (conj write_ipv6_spec ipv6_parse_spec_full). Qed.
Check C09_ipv6_spec :
  (forall a, length a = 8%nat /\ Forall (fun x => x < 65536) a -> write_ipv6 a = Spec.ipv6_serialize a)
  /\ (forall s, usv_list s -> parse_ipv6addr (utf8_encode s) =
                match Spec.ipv6_parse s with Some a => XOk a | None => XErr InvalidIpv6Address end).
Print Assumptions C09_ipv6_spec.

(* stronger than the second conjunct: no hypothesis on the code points; and the function on arbitrary
   byte lists (as a &[u8] function: a byte above 127 fails exactly like a code point above 127) *)
Theorem C09_ipv6_parse_all :
  (forall s, parse_ipv6addr (utf8_encode s) =
             match Spec.ipv6_parse s with Some a => XOk a | None => XErr InvalidIpv6Address end)
  /\ (forall l, parse_ipv6addr l =
                match Spec.ipv6_parse l with Some a => XOk a | None => XErr InvalidIpv6Address end).
Proof. exact (conj ipv6_parse_spec_str ipv6_parse_spec_bytes). Qed.
Check C09_ipv6_parse_all :
  (forall s, parse_ipv6addr (utf8_encode s) =
             match Spec.ipv6_parse s with Some a => XOk a | None => XErr InvalidIpv6Address end)
  /\ (forall l, parse_ipv6addr l =
                match Spec.ipv6_parse l with Some a => XOk a | None => XErr InvalidIpv6Address end).
Print Assumptions C09_ipv6_parse_all.

(* ---- '['-led inputs: both entry points return what the Standard's host parser returns for an IPv6
   literal - failure unless the input ends in ']', else the Standard's IPv6 parser on the text between
   the brackets (the IDNA oracle is not asked) ---- *)
Theorem C09_ipv6_literal : forall idna input, starts_with 91 input = true ->
  host_parse idna input = literal_result input /\ host_parse_opaque input = literal_result input.
Proof. exact literal_spec. Qed.
Check C09_ipv6_literal : forall idna input, starts_with 91 input = true ->
  host_parse idna input =
    (if ends_with 93 input then
       match Spec.ipv6_parse (removelast (tl input)) with Some a => Ok (HIpv6 a) | None => Err InvalidIpv6Address end
     else Err InvalidIpv6Address)
  /\ host_parse_opaque input =
    (if ends_with 93 input then
       match Spec.ipv6_parse (removelast (tl input)) with Some a => Ok (HIpv6 a) | None => Err InvalidIpv6Address end
     else Err InvalidIpv6Address).
Print Assumptions C09_ipv6_literal.

(* ---- no panic, no fuel exhaustion.  Full statement: for every input of both entry points (C09_total below).
   First the part that needs nothing about the IPv6 parser: every input that is not a '['-led literal. ---- *)
Definition C09_total_statement : Prop := total_statement.
Theorem C09_total_partial :
  (forall idna input, starts_with 91 input = false -> no_panic (host_parse_x idna input))
  /\ (forall input, starts_with 91 input = false -> no_panic (host_parse_opaque_x input)).
Proof. exact total_partial. Qed.
Check C09_total_partial :
  (forall idna input, starts_with 91 input = false -> no_panic (host_parse_x idna input))
  /\ (forall input, starts_with 91 input = false -> no_panic (host_parse_opaque_x input)).
Print Assumptions C09_total_partial.

(* the full statement: every input of both entry points, '['-led literals included (every checked index,
   the u16 overflow check of the embedded IPv4 part, the usize underflow checks of the swap loop and the
   fuel of every loop of parse_ipv6addr: Proofs/C09_V6sim.v, C09_V6total.v) *)
Theorem C09_total : C09_total_statement.
Proof. exact total_full. Qed.
Check C09_total :
  (forall idna input, no_panic (host_parse_x idna input)) /\ (forall input, no_panic (host_parse_opaque_x input)).
Print Assumptions C09_total.

(* ---- opaque hosts: reject exactly the forbidden host code points, C0-control-percent-encode the rest ---- *)
Theorem C09_opaque : forall input, usv_list input -> starts_with 91 input = false ->
  host_parse_opaque input =
  if existsb (fun c => memb c Spec.forbidden_host_code_points) input then Err InvalidDomainCharacter
  else Ok (HDomain (c0_encode (utf8_encode input))).
Proof. exact parse_opaque_spec. Qed.
Check C09_opaque : forall input, usv_list input -> starts_with 91 input = false ->
  host_parse_opaque input =
  if existsb (fun c => memb c Spec.forbidden_host_code_points) input then Err InvalidDomainCharacter
  else Ok (HDomain (c0_encode (utf8_encode input))).
Print Assumptions C09_opaque.

(* non-vacuity: concrete instances *)
Example C09_examples :
  parse_ipv4addr [48; 120; 49; 48; 46; 49] = XOk 268435457                       (* "0x10.1" *)
  /\ write_ipv6 [1; 0; 0; 2; 0; 0; 0; 3] = [49; 58; 48; 58; 48; 58; 50; 58; 58; 51] (* "1:0:0:2::3" *)
  /\ longest_zero_sequence [1; 0; 0; 2; 0; 0; 0; 3] = (4%Z, 7%Z)
  /\ host_parse_opaque [97; 32] = Err InvalidDomainCharacter
  /\ host_parse (fun x => Some x) [49; 46; 50; 46; 51] = Ok (HIpv4 16908291).
Proof. vm_compute. repeat split. Qed.

(* The host model against the hypothesis records of the URL-level theorems *)
(* C02, C05, C06 and C16 are proved for ABSTRACT host functions hp / hpo / hd under hypothesis records.
   For the host model (host_parse idna, host_parse_opaque, host_display) the records hold relative to
   IdnaOK idna alone (a hypothesis the oracle idna_clean meets and the IDNA model does not, C09_long_model; the
   theorems from here to C09_inst_C05_alphabet_reach therefore apply to the crate only through the capped oracle
   or the clean runs of the C09_inst2_* / C09_real_* theorems further down):
   HostRT (C02_AuthParts.v) - a non-empty host returned by either parser is displayed as a host text (ASCII,
     non-empty, the authority scan stops exactly at its end, no '@') that the same parser reads back as the
     same host; the empty host is displayed as nothing; parse_opaque "" is the empty host;
   host_above - every displayed host is above U+0020;
   HostOK of C05 (C05_Parser.v) - every host a parser can return is displayed inside 0x21..0x7E;
   the IP clause of C05 (IpOK) and the text-matches-kind clause of C06 (host_disp_ok) for every Ipv4Addr /
     Ipv6Addr VALUE (u32 / eight u16). *)
Theorem C09_host_model_ok : forall idna, IdnaOK idna ->
  HostRT (host_parse idna) host_parse_opaque host_display
  /\ host_above (host_parse idna) host_parse_opaque host_display
  /\ C05_Parser.HostOK (host_parse idna) host_parse_opaque host_display
  /\ (forall h, ip_value h -> Forall ok_byte (host_display h) /\ host_disp_ok host_display h)
  /\ (forall s h, host_parse idna s = Ok h \/ host_parse_opaque s = Ok h -> host_disp_ok host_display h).
Proof.
  intros idna OK. split; [exact (model_HostRT idna OK)|]. split; [exact (model_host_above idna OK)|].
  split; [exact (model_HostOK_C05 idna OK)|]. split; [|exact (model_host_disp_ok_out idna (idna_out idna OK))].
  intros h Hv. apply ip_value_args in Hv. exact (conj (model_IpOK_wf h Hv) (ip_disp_ok h Hv)).
Qed.
Check C09_host_model_ok : forall idna, IdnaOK idna ->
  HostRT (host_parse idna) host_parse_opaque host_display
  /\ host_above (host_parse idna) host_parse_opaque host_display
  /\ C05_Parser.HostOK (host_parse idna) host_parse_opaque host_display
  /\ (forall h, ip_value h -> Forall ok_byte (host_display h) /\ host_disp_ok host_display h)
  /\ (forall s h, host_parse idna s = Ok h \/ host_parse_opaque s = Ok h -> host_disp_ok host_display h).
Print Assumptions C09_host_model_ok.

(* HostOK of C02_Reach.v clause by clause: everything holds except `hp [] = Ok (HDomain [])` and the
   Host::parse_opaque half of the set_ip_host clause for IPv4 values (refuted below) *)
Theorem C09_host_model_HostOK_C02 : forall idna, IdnaOK idna ->
  (forall s h, host_parse idna s = Ok h -> h <> HDomain [] ->
     C02_Reach.host_text_ok (host_display h) /\ host_parse idna (host_display h) = Ok h)
  /\ (forall s h, host_parse_opaque s = Ok h -> h <> HDomain [] ->
     C02_Reach.host_text_ok (host_display h) /\ host_parse_opaque (host_display h) = Ok h)
  /\ (forall h, op_args_ok (C02_Reach.OSetIpHost h) ->
     C02_Reach.host_text_ok (host_display h) /\ host_parse idna (host_display h) = Ok h
     /\ (forall ps, h = HIpv6 ps -> host_parse_opaque (host_display h) = Ok h))
  /\ host_display (HDomain []) = [] /\ host_parse_opaque [] = Ok (HDomain []).
Proof. exact model_HostOK_C02_true. Qed.
Print Assumptions C09_host_model_HostOK_C02.

(* ... and what is FALSE of the host model:
   (a) HostOK of C02_Reach.v as a whole - Host::parse "" is an error for every IDNA function, never the empty
       host; so the theorems of Properties/C02.v stated under HostOK cannot be instantiated, their HostRT forms
       (C02_AuthMain.v) can;
   (b) its set_ip_host clause for IPv4 under Host::parse_opaque - the dotted-decimal text of an Ipv4 value is
       read back as a Domain: Url::parse("a://x/") then set_ip_host(127.0.0.1) has host() = Host::Ipv4, while
       Url::parse of its serialization a://127.0.0.1/ has host() = Host::Domain("127.0.0.1");
   (c) IpOK host_display of C05, which quantifies over values of the model type that are no Ipv4Addr;
   (d) `forall h, host_disp_ok host_display h`, the gate of C05_components_step for set_host(Some _): Display is
       the identity on domains, also on texts no parser returns (":"). *)
Theorem C09_host_records_refuted :
  (forall idna, ~ C02_Reach.HostOK (host_parse idna) host_parse_opaque host_display)
  /\ (forall idna, host_parse idna [] <> Ok (HDomain []))
  /\ (forall a, a < 4294967296 ->
        host_parse_opaque (host_display (HIpv4 a)) = Ok (HDomain (ipv4_display a))
        /\ host_parse_opaque (host_display (HIpv4 a)) <> Ok (HIpv4 a))
  /\ ~ IpOK host_display
  /\ ~ (forall h, host_disp_ok host_display h).
Proof.
  exact (conj model_HostOK_C02_refuted (conj host_parse_nil_refuted (conj opaque_ipv4_refuted
           (conj model_IpOK_refuted host_disp_ok_all_refuted)))).
Qed.
Check C09_host_records_refuted :
  (forall idna, ~ C02_Reach.HostOK (host_parse idna) host_parse_opaque host_display)
  /\ (forall idna, host_parse idna [] <> Ok (HDomain []))
  /\ (forall a, a < 4294967296 ->
        host_parse_opaque (host_display (HIpv4 a)) = Ok (HDomain (ipv4_display a))
        /\ host_parse_opaque (host_display (HIpv4 a)) <> Ok (HIpv4 a))
  /\ ~ IpOK host_display
  /\ ~ (forall h, host_disp_ok host_display h).
Print Assumptions C09_host_records_refuted.

(* the opaque half of C09_display_rt without the scalar-value hypothesis: EVERY list of numbers *)
Theorem C09_opaque_display_rt_any : forall input h,
  host_parse_opaque input = Ok h -> host_parse_opaque (host_display h) = Ok h.
Proof.
  intros input h H.
  exact (x_ok_host_parse_opaque _ _ (opaque_display_rt_any input h (host_parse_opaque_ok_x _ _ H))).
Qed.
Check C09_opaque_display_rt_any : forall input h,
  host_parse_opaque input = Ok h -> host_parse_opaque (host_display h) = Ok h.
Print Assumptions C09_opaque_display_rt_any.

(* ---- what IdnaOK amounts to for the IDNA model ----
   idna_of A cfg = the function host.rs calls (domain_to_ascii_cow(bytes, AsciiDenyList::URL) of Model/Uts46.v,
   on byte lists).  The three clauses of IdnaOK (idna_of A cfg) are three facts about ToASCII:
   C10_ascii_statement (ASCII, lower case, outside the deny list - the deny list regenerated from host.rs is
   the URL list of uts46.rs plus upper case), idempotence at the URL options on every byte input (idem_url), and:
   dotted-decimal text is mapped to itself (v4_fixed, which holds: C09_v4_fixed).
   The implication is true, but its second premise is FALSE of the model: idem_url fails as soon as an answer lies in
   Known_C10_long (for the adapter lowad: low_long, low_long_A of Proofs/C09_LongWit.v), and C09_long_model refutes
   the conclusion (model_long_not_IdnaOK; class_answer_not_IdnaOK for every adapter that reaches the class).
   C10_idem_statement, the idempotence statement of C10 without the class, is refuted too (C10_idem_refuted).
   What holds is the same derivation outside the class: C09_idna_premise2, and C09_IdnaOK2_uts46 without premises
   on ToASCII. *)
Theorem C09_idna_premise : forall A cfg,
  C10_ascii_statement A cfg -> idem_url A cfg -> v4_fixed A cfg -> IdnaOK (idna_of A cfg).
Proof. exact IdnaOK_of_model. Qed.
Check C09_idna_premise : forall A cfg,
  C10_ascii_statement A cfg ->
  (forall d b r, bytes d -> to_ascii A cfg d DENY_URL HAllow DIgnore = U32_c13.Ok (b, r) ->
     exists b', to_ascii A cfg r DENY_URL HAllow DIgnore = U32_c13.Ok (b', r)) ->
  (forall a, a < 4294967296 ->
     exists b, to_ascii A cfg (ipv4_display a) DENY_URL HAllow DIgnore = U32_c13.Ok (b, ipv4_display a)) ->
  IdnaOK (idna_of A cfg).
Print Assumptions C09_idna_premise.

Example C09_idna_premise_instances :
  idna_of toy true [65; 98; 46; 99] = Some [97; 98; 46; 99]
  /\ idna_of toy true [97; 98; 46; 99] = Some [97; 98; 46; 99]
  /\ idna_of toy true (ipv4_display 16909060) = Some (ipv4_display 16909060)
  /\ idna_of toy true [97; 32; 98] = None
  /\ idna_of toy true [97; 300] = None
  /\ host_parse (idna_of toy true) [65; 98; 46; 99] = Ok (HDomain [97; 98; 46; 99])
  /\ host_parse (idna_of toy true) [48; 120; 49; 46; 50] = Ok (HIpv4 16777218).
Proof. exact idna_of_examples. Qed.

(* The Standard's host parser and serializer *)
(* spec_host_parser (Spec/WhatwgHostParse.v: the host parser of the Standard with "domain to ASCII" as a
   function argument) equals the host model on every input, for both values of isOpaque, when both use the
   same function idna and IdnaOK idna holds (only its first clause is used: outputs have no forbidden domain
   code point - the check the Standard makes itself and host.rs delegates to the deny-list argument).
   host_to_spec reads Ok (Domain d) as a domain / an opaque host / the empty host, failure as failure. *)
Theorem C09_spec_host_parser : forall idna input, IdnaOK idna ->
  spec_host_parser idna false input = host_to_spec false (host_parse idna input)
  /\ (usv_list input -> spec_host_parser idna true input = host_to_spec true (host_parse_opaque input)).
Proof. exact spec_host_parser_model. Qed.
Check C09_spec_host_parser : forall idna input, IdnaOK idna ->
  spec_host_parser idna false input = host_to_spec false (host_parse idna input)
  /\ (usv_list input -> spec_host_parser idna true input = host_to_spec true (host_parse_opaque input)).
Print Assumptions C09_spec_host_parser.

(* the premise is needed: an oracle answering "a b" *)
Theorem C09_spec_host_parser_premise :
  let idna := fun _ : list N => Some [97; 32; 98] in
  spec_host_parser idna false [120] = None /\ host_parse idna [120] = Ok (HDomain [97; 32; 98]).
Proof. exact spec_domain_needs_premise. Qed.
Print Assumptions C09_spec_host_parser_premise.

(* the Standard's host serializer = Display for Host, on every host value *)
Theorem C09_spec_host_serializer : forall is_opaque h,
  match h with
  | HIpv4 a => a < 4294967296
  | HIpv6 p => length p = 8%nat /\ Forall (fun x => x < 65536) p
  | HDomain _ => True
  end ->
  spec_host_serializer (spec_of_host is_opaque h) = host_display h.
Proof. exact spec_serializer_model. Qed.
Check C09_spec_host_serializer : forall is_opaque h,
  match h with
  | HIpv4 a => a < 4294967296
  | HIpv6 p => length p = 8%nat /\ Forall (fun x => x < 65536) p
  | HDomain _ => True
  end ->
  spec_host_serializer (spec_of_host is_opaque h) = host_display h.
Print Assumptions C09_spec_host_serializer.

(* Instantiations: parser model + host model, the only premise about hosts is IdnaOK idna (which the IDNA model
   does not meet, C09_long_model; the same for the oracle itself: the C09_inst2 theorems below) *)
(* C02 (union of classes (i)-(iv)): every URL parsed without a base whose scheme is not "file" re-parses from
   its serialization to the same record, is well formed and ASCII *)
Theorem C09_inst_C02_reparse_nonfile : forall dbg idna, IdnaOK idna -> forall input u,
  usv_list input -> nonfile_input input = true ->
  parse_url dbg (host_parse idna) host_parse_opaque host_display None None input = POk u ->
  parse_url dbg (host_parse idna) host_parse_opaque host_display None None (utf8_lossy (ser u)) = POk u
  /\ wf_b u = true /\ ascii (ser u).
Proof. exact reparse_nonfile_model. Qed.
Check C09_inst_C02_reparse_nonfile : forall dbg idna, IdnaOK idna -> forall input u,
  usv_list input -> nonfile_input input = true ->
  parse_url dbg (host_parse idna) host_parse_opaque host_display None None input = POk u ->
  parse_url dbg (host_parse idna) host_parse_opaque host_display None None (utf8_lossy (ser u)) = POk u
  /\ wf_b u = true /\ ascii (ser u).
Print Assumptions C09_inst_C02_reparse_nonfile.

(* C02 class (iii), non-special scheme with authority (Host::parse_opaque), any encoding override *)
Theorem C09_inst_C02_reparse_auth : forall dbg idna, IdnaOK idna -> forall ovr input u,
  usv_list input -> auth_input input = true ->
  parse_url dbg (host_parse idna) host_parse_opaque host_display ovr None input = POk u ->
  parse_url dbg (host_parse idna) host_parse_opaque host_display None None (utf8_lossy (ser u)) = POk u
  /\ wf_b u = true /\ canon_auth (host_parse idna) host_parse_opaque host_display STNotSpecial u.
Proof. exact reparse_auth_model. Qed.
Check C09_inst_C02_reparse_auth : forall dbg idna, IdnaOK idna -> forall ovr input u,
  usv_list input -> auth_input input = true ->
  parse_url dbg (host_parse idna) host_parse_opaque host_display ovr None input = POk u ->
  parse_url dbg (host_parse idna) host_parse_opaque host_display None None (utf8_lossy (ser u)) = POk u
  /\ wf_b u = true /\ canon_auth (host_parse idna) host_parse_opaque host_display STNotSpecial u.
Print Assumptions C09_inst_C02_reparse_auth.

(* C02 class (iv), special non-file scheme (Host::parse) *)
Theorem C09_inst_C02_reparse_special : forall dbg idna, IdnaOK idna -> forall input u,
  usv_list input -> special_input input = true ->
  parse_url dbg (host_parse idna) host_parse_opaque host_display None None input = POk u ->
  parse_url dbg (host_parse idna) host_parse_opaque host_display None None (utf8_lossy (ser u)) = POk u
  /\ wf_b u = true /\ canon_special (host_parse idna) host_parse_opaque host_display u.
Proof. exact reparse_special_model. Qed.
Check C09_inst_C02_reparse_special : forall dbg idna, IdnaOK idna -> forall input u,
  usv_list input -> special_input input = true ->
  parse_url dbg (host_parse idna) host_parse_opaque host_display None None input = POk u ->
  parse_url dbg (host_parse idna) host_parse_opaque host_display None None (utf8_lossy (ser u)) = POk u
  /\ wf_b u = true /\ canon_special (host_parse idna) host_parse_opaque host_display u.
Print Assumptions C09_inst_C02_reparse_special.

(* ... but C02's full statement, read for the linked model, is FALSE: Url::parse("a://x/") then
   set_ip_host(127.0.0.1) - a step outside every Known class of C02_Reach.v - gives a://127.0.0.1/ with host kind
   Ipv4, and its serialization re-parses to the same text and offsets with host kind Domain (Host::parse_opaque
   does not read IPv4; confirmed on the crate: host() differs, the two Urls compare equal).  Fixpoint_of_reparse
   compares records.  A further class is needed: set_ip_host(V4) on a URL whose scheme is not special. *)
Theorem C09_inst_C02_model_refuted : ~ C02_model_statement.
Proof. exact C02_model_refuted. Qed.
Check C09_inst_C02_model_refuted :
  ~ (forall dbg idna, IdnaOK idna -> forall u,
       C02_Reach.Reachable dbg (host_parse idna) host_parse_opaque host_display u ->
       parse_url dbg (host_parse idna) host_parse_opaque host_display None None (utf8_lossy (ser u)) = POk u).
Print Assumptions C09_inst_C02_model_refuted.

(* C05, whole parser: any input (no range condition), any base with bytes in 0x20..0x7E, any override *)
Theorem C09_inst_C05_parse : forall dbg idna, IdnaOK idna -> forall ovr base input u,
  match base with Some b => Forall ok_or_space (ser b) | None => True end ->
  parse_url dbg (host_parse idna) host_parse_opaque host_display ovr base input = POk u ->
  Forall ok_or_space (ser u).
Proof. exact (fun dbg idna OK => parse_alphabet_out dbg idna (idna_out idna OK)). Qed.
Check C09_inst_C05_parse : forall dbg idna, IdnaOK idna -> forall ovr base input u,
  match base with Some b => Forall ok_or_space (ser b) | None => True end ->
  parse_url dbg (host_parse idna) host_parse_opaque host_display ovr base input = POk u ->
  Forall ok_or_space (ser u).
Print Assumptions C09_inst_C05_parse.

(* C05, sharper: U+0020 only in an opaque path *)
Theorem C09_inst_C05_bytes : forall dbg idna, IdnaOK idna -> forall ovr base input u, usv_list input ->
  match base with Some b => sharp b | None => True end ->
  parse_url dbg (host_parse idna) host_parse_opaque host_display ovr base input = POk u ->
  sharp u.
Proof. exact (fun dbg idna OK => parse_sharp_out dbg idna (idna_out idna OK)). Qed.
Check C09_inst_C05_bytes : forall dbg idna, IdnaOK idna -> forall ovr base input u, usv_list input ->
  match base with Some b => sharp b | None => True end ->
  parse_url dbg (host_parse idna) host_parse_opaque host_display ovr base input = POk u ->
  sharp u.
Print Assumptions C09_inst_C05_bytes.

(* C05, whole histories: ReachableM dbg idna = parse, join (any override) and the 19 mutators with arbitrary
   arguments, the address given to Url::set_ip_host being an Ipv4Addr / Ipv6Addr value (ip_value) *)
Theorem C09_inst_C05_history : forall dbg idna, IdnaOK idna -> forall u,
  ReachableM dbg idna u -> Forall ok_or_space (ser u).
Proof. exact (fun dbg idna OK => history_alphabet_out dbg idna (idna_out idna OK)). Qed.
Check C09_inst_C05_history : forall dbg idna, IdnaOK idna -> forall u,
  ReachableM dbg idna u -> Forall ok_or_space (ser u).
Print Assumptions C09_inst_C05_history.

(* C06: Url::set_ip_host with an address value keeps the record invariant (outside F-C03-5 / F-C02-4) *)
Theorem C09_inst_C06_set_ip_host_wf : forall dbg idna, IdnaOK idna -> forall u h u' st, wfh u -> ip_value h ->
  (has_authority_b u = true -> hi_of_host h = HI_None -> port u = None) ->
  (has_authority_b u = false -> path_start u = scheme_end u + 1) ->
  set_ip_host dbg host_display u h = Some (u', st) -> wfh u'.
Proof.
  intros dbg idna _ u h u' st W Hv H1 H2 H.
  destruct (wf_all dbg (host_parse idna) host_parse_opaque host_display u W) as (_ & _ & _ & _ & _ & _ & _ & K).
  apply (K h u' st); try assumption. apply ip_disp_ok, ip_value_args, Hv.
Qed.
Print Assumptions C09_inst_C06_set_ip_host_wf.

(* C16: the ASCII serialization of the tuple origin of ANY parse result parses back to a URL with that origin *)
Theorem C09_inst_C16_rt_parsed : forall dbg idna, IdnaOK idna -> forall input u c o c',
  url_parse dbg (host_parse idna) host_parse_opaque host_display input = POk u ->
  url_origin dbg (host_parse idna) host_parse_opaque host_display c u = OOk o c' -> is_tuple o = true ->
  nlen (ascii_serialization host_display o) < U32_MAX_P ->
  exists w, url_parse dbg (host_parse idna) host_parse_opaque host_display (ascii_serialization host_display o) = POk w
            /\ url_origin dbg (host_parse idna) host_parse_opaque host_display c' w = OOk o c'.
Proof. exact (fun dbg idna OK input u c o c' => rt_parsed_model dbg idna host_parse_opaque input u c o c' OK). Qed.
Check C09_inst_C16_rt_parsed : forall dbg idna, IdnaOK idna -> forall input u c o c',
  url_parse dbg (host_parse idna) host_parse_opaque host_display input = POk u ->
  url_origin dbg (host_parse idna) host_parse_opaque host_display c u = OOk o c' -> is_tuple o = true ->
  nlen (ascii_serialization host_display o) < U32_MAX_P ->
  exists w, url_parse dbg (host_parse idna) host_parse_opaque host_display (ascii_serialization host_display o) = POk w
            /\ url_origin dbg (host_parse idna) host_parse_opaque host_display c' w = OOk o c'.
Print Assumptions C09_inst_C16_rt_parsed.

(* non-vacuity: IdnaOK has an instance (idna_clean: the identity on ASCII text outside the deny list); with it
   the linked model parses a://u@[::1]:81/x (opaque parser, IPv6 literal) and ws://x.y:80/p (default port
   elided), reads http://1.2.3/ as the address 1.2.0.3 and refuses http://EXAMPLE.com/ (idna_clean does not
   lower-case); the three inputs are in the classes of the theorems above *)
Example C09_inst_examples :
  IdnaOK idna_clean
  /\ ex_ser (B "a://u@[::1]:81/x"%string) = Some (B "a://u@[::1]:81/x"%string)
  /\ ex_ser (B "http://EXAMPLE.com/"%string) = None
  /\ ex_ser (B "http://1.2.3/"%string) = Some (B "http://1.2.0.3/"%string)
  /\ ex_ser (B "ws://x.y:80/p"%string) = Some (B "ws://x.y/p"%string)
  /\ nonfile_input (B "http://1.2.3/"%string) = true /\ special_input (B "ws://x.y:80/p"%string) = true
  /\ auth_input (B "a://u@[::1]:81/x"%string) = true.
Proof. exact model_examples. Qed.

(* C03's hypothesis HostWf for the host model, and the theorems stated under it *)
From RU Require Import Proofs.C04_ParseTotal Proofs.C03_ReachParts Proofs.C05_Comp Proofs.C05_CompSteps Proofs.C05_CompReach
  Proofs.C05_CompSteps3 Proofs.C09_InstWf.

(* HostWf (Proofs/C03_ReachParts.v): a host other than the empty one that Host::parse / Host::parse_opaque returns is
   displayed as a non-empty text that does not start with ':' or '@' and does not end with '/'; the empty host as
   nothing.  IpDisp (Proofs/C05_CompSteps3.v): an Ipv4Addr / Ipv6Addr value is displayed as a non-empty text that does
   not start with ':' or '@'. *)
Theorem C09_inst_HostWf : forall idna, IdnaOK idna ->
  HostWf (host_parse idna) host_parse_opaque host_display /\ IpDisp host_display.
Proof. intros idna OK. split; [exact (model_HostWf idna OK) | exact (model_IpDisp idna OK)]. Qed.
Check C09_inst_HostWf : forall idna, IdnaOK idna ->
  HostWf (host_parse idna) host_parse_opaque host_display /\ IpDisp host_display.
Print Assumptions C09_inst_HostWf.

(* C03: every record the parser (linked with the host model) returns is well formed - every scheme, with or without a
   base, any input; the base satisfies base_ok and host_text_ok, which the result satisfies again
   (C09_inst_C05_parse_base_ok) *)
Theorem C09_inst_C03_parse_reachability : forall dbg idna, IdnaOK idna -> forall ovr base input u,
  match base with Some b => base_ok b = true /\ C06_Suffix.host_text_ok b | None => True end ->
  parse_url dbg (host_parse idna) host_parse_opaque host_display ovr base input = POk u ->
  wf_b u = true /\ C06_Suffix.host_text_ok u.
Proof. exact parse_wf_model. Qed.
Check C09_inst_C03_parse_reachability : forall dbg idna, IdnaOK idna -> forall ovr base input u,
  match base with Some b => base_ok b = true /\ C06_Suffix.host_text_ok b | None => True end ->
  parse_url dbg (host_parse idna) host_parse_opaque host_display ovr base input = POk u ->
  wf_b u = true /\ C06_Suffix.host_text_ok u.
Print Assumptions C09_inst_C03_parse_reachability.

Theorem C09_inst_C05_parse_base_ok : forall dbg idna, IdnaOK idna -> forall ovr base input u,
  match base with Some b => base_ok b = true /\ C06_Suffix.host_text_ok b | None => True end ->
  parse_url dbg (host_parse idna) host_parse_opaque host_display ovr base input = POk u ->
  base_ok u = true /\ C06_Suffix.host_text_ok u.
Proof. exact parse_base_ok_model. Qed.
Check C09_inst_C05_parse_base_ok : forall dbg idna, IdnaOK idna -> forall ovr base input u,
  match base with Some b => base_ok b = true /\ C06_Suffix.host_text_ok b | None => True end ->
  parse_url dbg (host_parse idna) host_parse_opaque host_display ovr base input = POk u ->
  base_ok u = true /\ C06_Suffix.host_text_ok u.
Print Assumptions C09_inst_C05_parse_base_ok.

(* C05: the component invariant and the five component clauses of the property text for EVERY parse result *)
Theorem C09_inst_C05_components_parse : forall dbg idna, IdnaOK idna -> forall dbg' ovr base input u,
  match base with Some b => CInv dbg' b /\ base_ok b = true | None => True end ->
  parse_url dbg (host_parse idna) host_parse_opaque host_display ovr base input = POk u ->
  CInv dbg' u /\ components_clean dbg' u.
Proof. exact parse_components_model. Qed.
Check C09_inst_C05_components_parse : forall dbg idna, IdnaOK idna -> forall dbg' ovr base input u,
  match base with Some b => CInv dbg' b /\ base_ok b = true | None => True end ->
  parse_url dbg (host_parse idna) host_parse_opaque host_display ovr base input = POk u ->
  CInv dbg' u /\ components_clean dbg' u.
Print Assumptions C09_inst_C05_components_parse.

(* C05: along parse, join and gated steps of all 19 mutators (CReach: step_gate2; CReach3: step_gate3, which covers
   quirks set_host with a port part and takes an address VALUE for set_ip_host) *)
Theorem C09_inst_C05_components_reach : forall dbg idna, IdnaOK idna -> forall u,
  CReach dbg (host_parse idna) host_parse_opaque host_display u -> wfh u /\ components_clean dbg u.
Proof. exact (fun dbg idna OK => creach_components dbg (host_parse idna) host_parse_opaque host_display (model_HostWf idna OK)). Qed.
Check C09_inst_C05_components_reach : forall dbg idna, IdnaOK idna -> forall u,
  CReach dbg (host_parse idna) host_parse_opaque host_display u -> wfh u /\ components_clean dbg u.
Print Assumptions C09_inst_C05_components_reach.

Theorem C09_inst_C05_components_reach3 : forall dbg idna, IdnaOK idna -> forall u,
  CReach3 dbg (host_parse idna) host_parse_opaque host_display u -> wfh u /\ components_clean dbg u.
Proof.
  exact (fun dbg idna OK => creach3_components dbg (host_parse idna) host_parse_opaque host_display (model_HostWf idna OK) (model_IpDisp idna OK)).
Qed.
Check C09_inst_C05_components_reach3 : forall dbg idna, IdnaOK idna -> forall u,
  CReach3 dbg (host_parse idna) host_parse_opaque host_display u -> wfh u /\ components_clean dbg u.
Print Assumptions C09_inst_C05_components_reach3.

(* C05, first sentence of the property text for the linked model: only 0x21..0x7E, U+0020 solely inside an opaque
   path, for every record of CReach3 whose stored host text has no space *)
Theorem C09_inst_C05_alphabet_reach : forall dbg idna, IdnaOK idna -> forall u,
  CReach3 dbg (host_parse idna) host_parse_opaque host_display u ->
  (has_host u = true -> ~ In 32 (C03_WF.piece u (host_start u) (host_end u))) -> C05_Alphabet.alphabet_ok u.
Proof.
  intros dbg idna OK u.
  apply (C05_Alphabet.creach3_alphabet dbg (host_parse idna) host_parse_opaque host_display (model_HostWf idna OK) (model_HostOK_C05 idna OK) (model_IpDisp idna OK)).
  intros h Hv. apply model_IpOK_wf. destruct h as [d|a|p]; [destruct Hv | exact Hv | exact Hv].
Qed.
Check C09_inst_C05_alphabet_reach : forall dbg idna, IdnaOK idna -> forall u,
  CReach3 dbg (host_parse idna) host_parse_opaque host_display u ->
  (has_host u = true -> ~ In 32 (C03_WF.piece u (host_start u) (host_end u))) -> C05_Alphabet.alphabet_ok u.
Print Assumptions C09_inst_C05_alphabet_reach.

(* Finding F-C10-1 (Properties/C10.v: C10_idem_refuted, C10_long_witness, C10_long_rejected): ToASCII accepts a label of
   at most 1000 scalar values whose Punycode form has more than 2000 characters after xn--, and rejects that output.
   Host::parse hands every non-bracketed input to ToASCII, so the clause idna_fix of IdnaOK (every oracle output is a
   fixed point of the oracle, on ALL byte inputs) is FALSE of the real idna crate: every theorem above stated relative
   to `IdnaOK idna` (the domain / IPv4 clause of C09_display_rt, C09_host_model_ok, C09_host_model_HostOK_C02,
   C09_spec_host_parser, all C09_inst_*; C02_HostOK2_model, C02_reach_partial_model, C16_rt_parsed_model) says nothing
   about the real crate.  They remain true, and are used below at the capped oracle.
   Lemmas: Proofs/C09_Long.v, C09_LongRun.v, C09_LongHist.v, C09_LongOrigin.v, C09_LongWit.v. *)
From RU Require Import Proofs.C09_Long Proofs.C09_LongRun Proofs.C09_LongHist Proofs.C09_LongOrigin Proofs.C09_LongWit.
From RU Require Proofs.Idna_C10b_Long Proofs.Idna_C10b_Stmt Proofs.C02_ReachPartial.

(* ---- the oracle hypothesis without the class ----
   known_c10_long d = Known_C10_long d (some dot-separated label of d starts with xn--, any case, and has more than 2000
   characters after it).  IdnaOK2 idna = IdnaOK idna with the fixed-point clause only for outputs outside the class.
   cap idna = the oracle that answers None where idna answers inside the class.  IdnaOK is the stronger record; under
   IdnaOK2 the capped oracle satisfies IdnaOK, so every IdnaOK-relative theorem holds for the host model run with it. *)
Theorem C09_IdnaOK2_cap : forall idna, (IdnaOK idna -> IdnaOK2 idna) /\ (IdnaOK2 idna -> IdnaOK (cap idna)).
Proof. exact (fun idna => conj (IdnaOK_IdnaOK2 idna) (IdnaOK2_cap idna)). Qed.
Check C09_IdnaOK2_cap : forall idna, (IdnaOK idna -> IdnaOK2 idna) /\ (IdnaOK2 idna -> IdnaOK (cap idna)).
Print Assumptions C09_IdnaOK2_cap.

Check (fun idna => idna2_fix idna) : forall idna, IdnaOK2 idna ->
  forall bs d, idna bs = Some d -> known_c10_long d = false -> idna d = Some d.
Check (eq_refl : known_c10_long = Idna_C10b_Long.Known_C10_long).
Check (eq_refl : cap = fun idna bs =>
  match idna bs with Some d => if known_c10_long d then None else Some d | None => None end).

(* ---- agreement, Host::parse ----
   host_in_class idna input = the input is not '['-led and the oracle's answer for its percent-decoded bytes is in the
   class.  Outside: the capped run IS the run.  Inside: the capped run is Err IdnaError.  Every success of the capped run
   is the same success of the run; every success of the run whose display text is outside the class (IPv4 / IPv6
   results always are) is a success of the capped run. *)
Theorem C09_cap_agree : forall idna input,
  (host_in_class idna input = false -> host_parse (cap idna) input = host_parse idna input)
  /\ (host_in_class idna input = true -> host_parse (cap idna) input = Err IdnaError)
  /\ (forall h, host_parse (cap idna) input = Ok h -> host_parse idna input = Ok h)
  /\ (IdnaOK2 idna -> forall h, host_parse idna input = Ok h -> known_c10_long (host_display h) = false ->
      host_parse (cap idna) input = Ok h).
Proof.
  exact (fun idna input => conj (cap_agree idna input) (conj (cap_class idna input) (conj (cap_refines idna input)
           (fun OK h => cap_result idna input h OK)))).
Qed.
Check C09_cap_agree : forall idna input,
  (host_in_class idna input = false -> host_parse (cap idna) input = host_parse idna input)
  /\ (host_in_class idna input = true -> host_parse (cap idna) input = Err IdnaError)
  /\ (forall h, host_parse (cap idna) input = Ok h -> host_parse idna input = Ok h)
  /\ (IdnaOK2 idna -> forall h, host_parse idna input = Ok h -> known_c10_long (host_display h) = false ->
      host_parse (cap idna) input = Ok h).
Print Assumptions C09_cap_agree.

(* ---- the domain / IPv4 clause of C09_display_rt and the form clause of C09_domain, for the oracle ITSELF, relative to
   IdnaOK2: Display then parse returns the same Host for every parsed host whose text is outside the class ---- *)
Theorem C09_display_rt2 : forall idna, IdnaOK2 idna -> forall input h, host_parse idna input = Ok h ->
  (known_c10_long (host_display h) = false -> host_parse idna (host_display h) = Ok h)
  /\ (forall d, h = HDomain d ->
        Forall (fun c => c < 128 /\ is_upper c = false /\ Spec.forbidden_domain_code_point c = false) d).
Proof.
  intros idna OK input h H. split; [exact (special_display_rt2 idna input h OK H)|].
  intros d ->. exact (domain_form2 idna input d OK H).
Qed.
Check C09_display_rt2 : forall idna, IdnaOK2 idna -> forall input h, host_parse idna input = Ok h ->
  (known_c10_long (host_display h) = false -> host_parse idna (host_display h) = Ok h)
  /\ (forall d, h = HDomain d ->
        Forall (fun c => c < 128 /\ is_upper c = false /\ Spec.forbidden_domain_code_point c = false) d).
Print Assumptions C09_display_rt2.

(* ---- the exclusion is necessary: an oracle that satisfies IdnaOK2, answers "x" with the label xn--a...a (2001 a's) and
   refuses that label, as the crate does with its own long outputs.  IdnaOK is false of it; Host::parse "x" succeeds and
   parsing the display text of the result fails: the display round trip of C09 without the exclusion is FALSE ---- *)
Theorem C09_long_refuted :
  (IdnaOK2 idna_long /\ ~ IdnaOK idna_long
   /\ host_parse idna_long [120] = Ok (HDomain W_long_label)
   /\ host_parse idna_long (host_display (HDomain W_long_label)) = Err IdnaError
   /\ host_in_class idna_long [120] = true
   /\ host_parse (cap idna_long) [120] = Err IdnaError)
  /\ ~ (forall idna, IdnaOK2 idna -> forall input h, host_parse idna input = Ok h -> host_parse idna (host_display h) = Ok h).
Proof. exact (conj long_refuted display_rt_needs_class). Qed.
Check C09_long_refuted :
  (IdnaOK2 idna_long /\ ~ IdnaOK idna_long
   /\ host_parse idna_long [120] = Ok (HDomain W_long_label)
   /\ host_parse idna_long (host_display (HDomain W_long_label)) = Err IdnaError
   /\ host_in_class idna_long [120] = true
   /\ host_parse (cap idna_long) [120] = Err IdnaError)
  /\ ~ (forall idna, IdnaOK2 idna -> forall input h, host_parse idna input = Ok h -> host_parse idna (host_display h) = Ok h).
Print Assumptions C09_long_refuted.

(* ---- the same on the IDNA MODEL (Model/Uts46.v called as host.rs calls it, lower-casing adapter of
   Proofs/Idna_C10b_Long.v): the host of the 1000 ideographs U+4E00 + 20*i is accepted as a 2962-character domain inside
   the class, which Host::parse refuses; http://<those ideographs>/ parses, its serialization (2970 bytes) does not
   (confirmed on the crates: Url::parse(u.as_str()) = Err(IdnaError), Host::parse(u.host_str()) = Err).  And for EVERY
   adapter an answer of the model inside the class refutes IdnaOK ---- *)
Theorem C09_long_model :
  (idna_low Idna_C10b_Long.W_C10_long = Some Idna_C10b_Long.W_C10_long_A /\ known_c10_long Idna_C10b_Long.W_C10_long_A = true /\ idna_low Idna_C10b_Long.W_C10_long_A = None
   /\ host_parse idna_low Idna_C10b_Long.W_C10_long_U = Ok (HDomain Idna_C10b_Long.W_C10_long_A)
   /\ host_parse idna_low (host_display (HDomain Idna_C10b_Long.W_C10_long_A)) = Err IdnaError
   /\ host_in_class idna_low Idna_C10b_Long.W_C10_long_U = true
   /\ host_parse (cap idna_low) Idna_C10b_Long.W_C10_long_U = Err IdnaError)
  /\ (parse_url false (host_parse idna_low) host_parse_opaque host_display None None W_long_url = POk wm_u
      /\ ser wm_u = W_long_url_ser /\ nlen (ser wm_u) = 2970
      /\ parse_url false (host_parse idna_low) host_parse_opaque host_display None None (utf8_lossy (ser wm_u)) = PErr IdnaError)
  /\ ~ IdnaOK idna_low
  /\ (forall A cfg bs d, idna_of A cfg bs = Some d -> known_c10_long d = true -> ~ IdnaOK (idna_of A cfg)).
Proof. exact (conj model_long_host (conj model_long_url (conj model_long_not_IdnaOK class_answer_not_IdnaOK))). Qed.
Check C09_long_model :
  (idna_low Idna_C10b_Long.W_C10_long = Some Idna_C10b_Long.W_C10_long_A /\ known_c10_long Idna_C10b_Long.W_C10_long_A = true /\ idna_low Idna_C10b_Long.W_C10_long_A = None
   /\ host_parse idna_low Idna_C10b_Long.W_C10_long_U = Ok (HDomain Idna_C10b_Long.W_C10_long_A)
   /\ host_parse idna_low (host_display (HDomain Idna_C10b_Long.W_C10_long_A)) = Err IdnaError
   /\ host_in_class idna_low Idna_C10b_Long.W_C10_long_U = true
   /\ host_parse (cap idna_low) Idna_C10b_Long.W_C10_long_U = Err IdnaError)
  /\ (parse_url false (host_parse idna_low) host_parse_opaque host_display None None W_long_url = POk wm_u
      /\ ser wm_u = W_long_url_ser /\ nlen (ser wm_u) = 2970
      /\ parse_url false (host_parse idna_low) host_parse_opaque host_display None None (utf8_lossy (ser wm_u)) = PErr IdnaError)
  /\ ~ IdnaOK idna_low
  /\ (forall A cfg bs d, idna_of A cfg bs = Some d -> known_c10_long d = true -> ~ IdnaOK (idna_of A cfg)).
Print Assumptions C09_long_model.
Check (eq_refl : idna_low = idna_of Idna_C10b_Long.lowad false).
Check (eq_refl : W_long_url = (B "http://" ++ Idna_C10b_Long.W_C10_long_U ++ [47])%list).
Check (eq_refl : W_long_url_ser = (B "http://" ++ Idna_C10b_Long.W_C10_long_A ++ [47])%list).

(* ---- what IdnaOK2 amounts to for the IDNA model: C10's output statement, idempotence OUTSIDE the class at the options
   host.rs uses (idem_url2), dotted decimal mapped to itself.  C10_idem_statement2 would give idem_url2
   (idem_url2_from_C10) but is itself refuted (C10_idem2_refuted: an adapter whose mapping of a character depends on what precedes it); the three
   premises are established for the uts46 model in C09_IdnaOK2_uts46, whose premise MapPrefix excludes that adapter ---- *)
Theorem C09_idna_premise2 : forall A cfg,
  C10_ascii_statement A cfg -> idem_url2 A cfg -> v4_fixed A cfg -> IdnaOK2 (idna_of A cfg).
Proof. exact IdnaOK2_of_model. Qed.
Check C09_idna_premise2 : forall A cfg,
  C10_ascii_statement A cfg ->
  (forall d b r, bytes d -> to_ascii A cfg d DENY_URL HAllow DIgnore = U32_c13.Ok (b, r) ->
     Idna_C10b_Long.Known_C10_long r = false ->
     exists b', to_ascii A cfg r DENY_URL HAllow DIgnore = U32_c13.Ok (b', r)) ->
  (forall a, a < 4294967296 ->
     exists b, to_ascii A cfg (ipv4_display a) DENY_URL HAllow DIgnore = U32_c13.Ok (b, ipv4_display a)) ->
  IdnaOK2 (idna_of A cfg).
Print Assumptions C09_idna_premise2.

(* ---- agreement, the URL parser: the parser model calls Host::parse in three places and passes every error on, so the
   run with the capped oracle is the run with the oracle itself, or stops with IdnaError (at the first host whose oracle
   answer is in the class).  run_clean dbg idna ovr base input = the two runs are equal = "no host of the run is in the
   class"; a capped run that succeeds is a clean run with the same result ---- *)
Theorem C09_cap_parse_url : forall dbg idna ovr base input,
  (parse_url dbg (host_parse (cap idna)) host_parse_opaque host_display ovr base input
     = parse_url dbg (host_parse idna) host_parse_opaque host_display ovr base input
   \/ parse_url dbg (host_parse (cap idna)) host_parse_opaque host_display ovr base input = PErr IdnaError)
  /\ (forall u, parse_url dbg (host_parse (cap idna)) host_parse_opaque host_display ovr base input = POk u ->
        parse_url dbg (host_parse idna) host_parse_opaque host_display ovr base input = POk u
        /\ run_clean dbg idna ovr base input).
Proof. exact (fun dbg idna ovr base input => conj (parse_url_cap dbg idna ovr base input) (parse_url_cap_ok dbg idna ovr base input)). Qed.
Check C09_cap_parse_url : forall dbg idna ovr base input,
  (parse_url dbg (host_parse (cap idna)) host_parse_opaque host_display ovr base input
     = parse_url dbg (host_parse idna) host_parse_opaque host_display ovr base input
   \/ parse_url dbg (host_parse (cap idna)) host_parse_opaque host_display ovr base input = PErr IdnaError)
  /\ (forall u, parse_url dbg (host_parse (cap idna)) host_parse_opaque host_display ovr base input = POk u ->
        parse_url dbg (host_parse idna) host_parse_opaque host_display ovr base input = POk u
        /\ parse_url dbg (host_parse (cap idna)) host_parse_opaque host_display ovr base input
           = parse_url dbg (host_parse idna) host_parse_opaque host_display ovr base input).
Print Assumptions C09_cap_parse_url.

(* ---- agreement, histories: three mutators call Host::parse (Url::set_host, quirks set_host / set_hostname) and
   return the URL unchanged when the host is refused, so a step with the capped oracle is the step with the oracle
   itself or leaves the URL as it was; every URL reachable (parse, join, the 19 mutators) with the capped oracle is
   reachable with the oracle itself, and the clean histories of the model are histories of the capped model ---- *)
Theorem C09_cap_history : forall dbg idna,
  (forall u o, C05_History.apply_op dbg (host_parse (cap idna)) host_parse_opaque host_display u o
               = C05_History.apply_op dbg (host_parse idna) host_parse_opaque host_display u o
            \/ C05_History.apply_op dbg (host_parse (cap idna)) host_parse_opaque host_display u o = Some u)
  /\ (forall u o, C02_Reach.apply_op dbg (host_parse (cap idna)) host_parse_opaque host_display u o
               = C02_Reach.apply_op dbg (host_parse idna) host_parse_opaque host_display u o
            \/ C02_Reach.apply_op dbg (host_parse (cap idna)) host_parse_opaque host_display u o = Some u)
  /\ (forall u, ReachableM dbg (cap idna) u -> ReachableM dbg idna u)
  /\ (forall u, ReachableClean dbg idna u -> ReachableM dbg (cap idna) u).
Proof.
  exact (fun dbg idna => conj (apply_op5_cap dbg idna) (conj (apply_op2_cap dbg idna)
           (conj (ReachableM_cap dbg idna) (ReachableClean_cap dbg idna)))).
Qed.
Check C09_cap_history : forall dbg idna,
  (forall u o, C05_History.apply_op dbg (host_parse (cap idna)) host_parse_opaque host_display u o
               = C05_History.apply_op dbg (host_parse idna) host_parse_opaque host_display u o
            \/ C05_History.apply_op dbg (host_parse (cap idna)) host_parse_opaque host_display u o = Some u)
  /\ (forall u o, C02_Reach.apply_op dbg (host_parse (cap idna)) host_parse_opaque host_display u o
               = C02_Reach.apply_op dbg (host_parse idna) host_parse_opaque host_display u o
            \/ C02_Reach.apply_op dbg (host_parse (cap idna)) host_parse_opaque host_display u o = Some u)
  /\ (forall u, ReachableM dbg (cap idna) u -> ReachableM dbg idna u)
  /\ (forall u, ReachableClean dbg idna u -> ReachableM dbg (cap idna) u).
Print Assumptions C09_cap_history.

(* The instantiations for the oracle ITSELF: premise IdnaOK2 + "no host of the run is in the class" *)
(* C02 classes (i)-(iv): = C09_inst_C02_reparse_nonfile at the capped oracle + agreement on both runs *)
Theorem C09_inst2_C02_reparse_nonfile : forall dbg idna, IdnaOK2 idna -> forall input u,
  usv_list input -> nonfile_input input = true ->
  parse_url dbg (host_parse idna) host_parse_opaque host_display None None input = POk u ->
  run_clean dbg idna None None input ->
  parse_url dbg (host_parse idna) host_parse_opaque host_display None None (utf8_lossy (ser u)) = POk u
  /\ run_clean dbg idna None None (utf8_lossy (ser u)) /\ wf_b u = true /\ ascii (ser u).
Proof. exact (fun dbg idna OK input u => reparse_nonfile_model2 dbg idna OK input u). Qed.
Check C09_inst2_C02_reparse_nonfile : forall dbg idna, IdnaOK2 idna -> forall input u,
  usv_list input -> nonfile_input input = true ->
  parse_url dbg (host_parse idna) host_parse_opaque host_display None None input = POk u ->
  parse_url dbg (host_parse (cap idna)) host_parse_opaque host_display None None input
    = parse_url dbg (host_parse idna) host_parse_opaque host_display None None input ->
  parse_url dbg (host_parse idna) host_parse_opaque host_display None None (utf8_lossy (ser u)) = POk u
  /\ run_clean dbg idna None None (utf8_lossy (ser u)) /\ wf_b u = true /\ ascii (ser u).
Print Assumptions C09_inst2_C02_reparse_nonfile.

(* class (iii), any encoding override; class (iv) with the canonical form (relative to the capped host parser) *)
Theorem C09_inst2_C02_reparse_auth : forall dbg idna, IdnaOK2 idna -> forall ovr input u,
  usv_list input -> auth_input input = true ->
  parse_url dbg (host_parse idna) host_parse_opaque host_display ovr None input = POk u ->
  run_clean dbg idna ovr None input ->
  parse_url dbg (host_parse idna) host_parse_opaque host_display None None (utf8_lossy (ser u)) = POk u
  /\ run_clean dbg idna None None (utf8_lossy (ser u)) /\ wf_b u = true.
Proof.
  intros dbg idna OK ovr input u Hu Hc Hp C.
  destruct (reparse_transfer dbg idna u _ (reparse_auth_model dbg (cap idna) (IdnaOK2_cap idna OK) ovr input u Hu Hc
              (run_clean_ok dbg idna ovr None input u Hp C))) as (R & C' & W & _).
  exact (conj R (conj C' W)).
Qed.
Print Assumptions C09_inst2_C02_reparse_auth.

Theorem C09_inst2_C02_reparse_special : forall dbg idna, IdnaOK2 idna -> forall input u,
  usv_list input -> special_input input = true ->
  parse_url dbg (host_parse idna) host_parse_opaque host_display None None input = POk u ->
  run_clean dbg idna None None input ->
  parse_url dbg (host_parse idna) host_parse_opaque host_display None None (utf8_lossy (ser u)) = POk u
  /\ run_clean dbg idna None None (utf8_lossy (ser u)) /\ wf_b u = true
  /\ canon_special (host_parse (cap idna)) host_parse_opaque host_display u.
Proof.
  exact (fun dbg idna OK input u Hu Hc Hp C => reparse_transfer dbg idna u _
           (reparse_special_model dbg (cap idna) (IdnaOK2_cap idna OK) input u Hu Hc (run_clean_ok dbg idna None None input u Hp C))).
Qed.
Print Assumptions C09_inst2_C02_reparse_special.

(* the premise run_clean cannot be dropped: on the linked model with the stand-in oracle, Url::parse("http://x/")
   succeeds with the long host, the re-parse of its serialization is PErr IdnaError, the capped run is PErr IdnaError *)
Theorem C09_inst2_C02_refuted :
  (parse_url true (host_parse idna_long) host_parse_opaque host_display None None wl_input = POk wl_u
   /\ ser wl_u = (B "http://" ++ W_long_label ++ [47])%list
   /\ nonfile_input wl_input = true /\ special_input wl_input = true
   /\ parse_url true (host_parse idna_long) host_parse_opaque host_display None None (utf8_lossy (ser wl_u)) = PErr IdnaError
   /\ parse_url true (host_parse (cap idna_long)) host_parse_opaque host_display None None wl_input = PErr IdnaError)
  /\ ~ (forall dbg idna, IdnaOK2 idna -> forall input u, usv_list input -> nonfile_input input = true ->
          parse_url dbg (host_parse idna) host_parse_opaque host_display None None input = POk u ->
          parse_url dbg (host_parse idna) host_parse_opaque host_display None None (utf8_lossy (ser u)) = POk u).
Proof. exact (conj url_long_refuted reparse_needs_clean). Qed.
Print Assumptions C09_inst2_C02_refuted.
Check (eq_refl : wl_input = B "http://x/").

(* C02 for whole histories ReachC (C02_reach_partial_model): parse without base on a non-file scheme, then
   set_fragment / set_query / set_port with arbitrary arguments and joins with an empty, fragment-only or query-led
   reference.  A ReachC history of the capped model is a ReachC history of the model (its parse being a clean run), and
   its result is a fixpoint of serialize-then-parse with the oracle itself *)
Theorem C09_inst2_C02_reach_partial : forall dbg idna, IdnaOK2 idna -> forall u,
  C02_ReachPartial.ReachC dbg (host_parse (cap idna)) host_parse_opaque host_display u ->
  C02_ReachPartial.ReachC dbg (host_parse idna) host_parse_opaque host_display u
  /\ parse_url dbg (host_parse idna) host_parse_opaque host_display None None (utf8_lossy (ser u)) = POk u
  /\ run_clean dbg idna None None (utf8_lossy (ser u)) /\ wf_b u = true /\ ascii (ser u).
Proof.
  exact (fun dbg idna OK u H => conj (ReachC_cap dbg idna u H) (reparse_transfer dbg idna u _
           (C02_ReachPartial.reach_partial dbg (host_parse (cap idna)) host_parse_opaque host_display
              (C02_HistInst.HostOK2_model (cap idna) (IdnaOK2_cap idna OK)) u H))).
Qed.
Print Assumptions C09_inst2_C02_reach_partial.

(* C05: the alphabet theorems use the FIRST clause of the hypothesis only (every oracle output is ASCII outside the
   deny list) - they hold for the oracle itself under IdnaOK2 with NO premise about the class: whole parser, sharper
   form, whole histories (parse, join, the 19 mutators with arbitrary arguments) *)
Theorem C09_inst2_C05 : forall dbg idna, IdnaOK2 idna ->
  (forall ovr base input u, match base with Some b => Forall ok_or_space (ser b) | None => True end ->
     parse_url dbg (host_parse idna) host_parse_opaque host_display ovr base input = POk u -> Forall ok_or_space (ser u))
  /\ (forall ovr base input u, usv_list input -> match base with Some b => sharp b | None => True end ->
     parse_url dbg (host_parse idna) host_parse_opaque host_display ovr base input = POk u -> sharp u)
  /\ (forall u, ReachableM dbg idna u -> Forall ok_or_space (ser u)).
Proof.
  exact (fun dbg idna OK => conj (parse_alphabet_out dbg idna (idna2_out idna OK))
           (conj (parse_sharp_out dbg idna (idna2_out idna OK)) (history_alphabet_out dbg idna (idna2_out idna OK)))).
Qed.
Check C09_inst2_C05 : forall dbg idna, IdnaOK2 idna ->
  (forall ovr base input u, match base with Some b => Forall ok_or_space (ser b) | None => True end ->
     parse_url dbg (host_parse idna) host_parse_opaque host_display ovr base input = POk u -> Forall ok_or_space (ser u))
  /\ (forall ovr base input u, usv_list input -> match base with Some b => sharp b | None => True end ->
     parse_url dbg (host_parse idna) host_parse_opaque host_display ovr base input = POk u -> sharp u)
  /\ (forall u, ReachableM dbg idna u -> Forall ok_or_space (ser u)).
Print Assumptions C09_inst2_C05.

(* C16: the origin round trip.  url_origin re-enters the parser on the path of a blob: URL and swallows its errors, so
   the premise is stated as: parse and origin succeed with the capped oracle (= with the oracle itself on clean runs);
   all four runs of the conclusion are runs with the oracle itself *)
Theorem C09_inst2_C16_rt_parsed : forall dbg idna, IdnaOK2 idna -> forall input u c o c',
  url_parse dbg (host_parse (cap idna)) host_parse_opaque host_display input = POk u ->
  url_origin dbg (host_parse (cap idna)) host_parse_opaque host_display c u = OOk o c' -> is_tuple o = true ->
  nlen (ascii_serialization host_display o) < U32_MAX_P ->
  (url_parse dbg (host_parse idna) host_parse_opaque host_display input = POk u
   /\ url_origin dbg (host_parse idna) host_parse_opaque host_display c u = OOk o c')
  /\ exists w, url_parse dbg (host_parse idna) host_parse_opaque host_display (ascii_serialization host_display o) = POk w
               /\ url_origin dbg (host_parse idna) host_parse_opaque host_display c' w = OOk o c'.
Proof. exact (fun dbg idna OK input u c o c' => origin_rt_model2 dbg idna OK input u c o c'). Qed.
Print Assumptions C09_inst2_C16_rt_parsed.

(* non-vacuity: the stand-in oracle satisfies IdnaOK2 and not IdnaOK; Host::parse "a.b" is outside the class, the capped
   run agrees; the run of the linked model on http://a.b:81/p is clean and in the classes of the theorems above *)
Example C09_inst2_examples :
  IdnaOK2 idna_long
  /\ host_parse idna_long [97; 46; 98] = Ok (HDomain [97; 46; 98]) /\ known_c10_long (host_display (HDomain [97; 46; 98])) = false
  /\ host_in_class idna_long [97; 46; 98] = false
  /\ host_parse (cap idna_long) [97; 46; 98] = Ok (HDomain [97; 46; 98])
  /\ host_parse idna_long [49; 46; 50] = Ok (HIpv4 16777218)
  /\ run_clean true idna_long None None (B "http://a.b:81/p")
  /\ nonfile_input (B "http://a.b:81/p") = true /\ special_input (B "http://a.b:81/p") = true
  /\ match parse_url true (host_parse idna_long) host_parse_opaque host_display None None (B "http://a.b:81/p") with
     | POk u => list_eqb (ser u) (B "http://a.b:81/p") | _ => false end = true.
Proof.
  split; [exact idna_long_ok2|]. destruct long_premises_hold as (H1 & H2 & H3 & H4 & H5).
  repeat (split; [assumption|]). unfold run_clean. vm_compute. repeat split; reflexivity.
Qed.

(* the premises of the C09_inst2_* theorems discharged / made result-level *)
From RU Require Import Proofs.C09_Uts46 Proofs.C09_RunClean Proofs.C09_Inst2 Proofs.C05_HostParse.
From RU Require Proofs.Idna_WalkEnc Proofs.Idna_C10_Inner Proofs.Idna_C10b_Stmt Proofs.Idna_C10c_Drun Proofs.Idna_C10c_Example
  Proofs.C02_Reach3 Proofs.C02_Reach5 Proofs.C03_ParseFront Proofs.C05_ReachF Proofs.C05_HostInst Proofs.C05_HostText
  Proofs.C05_Alphabet Proofs.C04_ParseTotal Proofs.C05_CompSteps.

(* ---- IdnaOK2 for the IDNA MODEL (Model/Uts46.v called as host.rs calls it) from the PROVED theorems of C10: clause 1 from
   C10_ascii (NvNoTrunc), clause 2 from C10_idem3 (the six sampled adapter facts), clause 3 - dotted-decimal text is mapped
   to itself - from C10_an for EVERY adapter (the text of an Ipv4Addr is in the adapter-free class AN).  The premises are
   facts about the ADAPTER only (idna_adapter: normalizer and tables), each sampled on the real crate by the `adapter`
   stream of the harness ---- *)
Theorem C09_IdnaOK2_uts46 : forall A cfg,
  Idna_Hyp.AdapterOK A -> Idna_WalkEnc.AdapterUSV A -> Idna_C10_Inner.NvNoTrunc A -> Idna_C10b_Stmt.NvIdem A ->
  Idna_C10b_Stmt.AsciiNoMark A -> Idna_C10c_Drun.MapPrefix A -> IdnaOK2 (idna_of A cfg).
Proof. exact IdnaOK2_uts46. Qed.
Check C09_IdnaOK2_uts46 : forall A cfg,
  Idna_Hyp.AdapterOK A -> Idna_WalkEnc.AdapterUSV A -> Idna_C10_Inner.NvNoTrunc A -> Idna_C10b_Stmt.NvIdem A ->
  Idna_C10b_Stmt.AsciiNoMark A -> Idna_C10c_Drun.MapPrefix A -> IdnaOK2 (idna_of A cfg).
Print Assumptions C09_IdnaOK2_uts46.

(* the dotted-decimal clause, every adapter: ToASCII at the options of host.rs maps a text of digits and dots to itself *)
Theorem C09_v4_fixed : forall A cfg, v4_fixed A cfg.
Proof. exact v4_fixed_all. Qed.
Check C09_v4_fixed : forall A cfg a, a < 4294967296 ->
  exists b, to_ascii A cfg (ipv4_display a) DENY_URL HAllow DIgnore = U32_c13.Ok (b, ipv4_display a).
Print Assumptions C09_v4_fixed.

(* the six premises are satisfiable (adapter lowsan of Proofs/Idna_C10c_Example.v) *)
Example C09_IdnaOK2_uts46_inhabited : IdnaOK2 (idna_of Idna_C10c_Example.lowsan true).
Proof. exact IdnaOK2_uts46_lowsan. Qed.

(* ---- run_clean from the RESULT.  ht u = the stored host text (the slice [host_start, host_end) of the serialization).
   res_clean u = ht u is outside Known_C10_long, and a file URL has kept its host.  A run of the parser calls Host::parse
   at most once and stores the Display text of the host it got as the host text of the result (host-text tracking through
   after_double_slash and the file host state); so a successful run whose result passes res_clean is a clean run ---- *)
Check (eq_refl : res_clean = fun u =>
  negb (known_c10_long (ht u)) && (negb (list_eqb (b_scheme u) s_file) || has_host u)).
Check (eq_refl : ht = fun u => C03_WF.piece u (host_start u) (host_end u)).

Theorem C09_run_clean_result : forall dbg idna, IdnaOK2 idna -> forall ovr base input u,
  match base with Some b => wf_b b = true | None => True end ->
  parse_url dbg (host_parse idna) host_parse_opaque host_display ovr base input = POk u -> res_clean u = true ->
  run_clean dbg idna ovr base input.
Proof. exact run_clean_of_result. Qed.
Check C09_run_clean_result : forall dbg idna, IdnaOK2 idna -> forall ovr base input u,
  match base with Some b => wf_b b = true | None => True end ->
  parse_url dbg (host_parse idna) host_parse_opaque host_display ovr base input = POk u -> res_clean u = true ->
  parse_url dbg (host_parse (cap idna)) host_parse_opaque host_display ovr base input
    = parse_url dbg (host_parse idna) host_parse_opaque host_display ovr base input.
Print Assumptions C09_run_clean_result.

(* the file clause of res_clean cannot be dropped: for file URLs the path parser drops the host in front of a Windows drive
   letter, so Url::parse("file://x/C:/") = file:///C:/ has no host text although the run parsed the host x - with the
   stand-in oracle, a host inside the class: the capped run is PErr IdnaError *)
Theorem C09_run_clean_file_refuted :
  (match parse_url true (host_parse idna_long) host_parse_opaque host_display None None wq_input with
   | POk u => list_eqb (ser u) (B "file:///C:/") && hi_eqb (hosti u) HI_None && negb (known_c10_long (ht u))
              && negb (res_clean u)
   | _ => false
   end = true
   /\ parse_url true (host_parse (cap idna_long)) host_parse_opaque host_display None None wq_input = PErr IdnaError
   /\ ~ run_clean true idna_long None None wq_input)
  /\ ~ (forall dbg idna, IdnaOK2 idna -> forall input u,
          parse_url dbg (host_parse idna) host_parse_opaque host_display None None input = POk u ->
          known_c10_long (ht u) = false -> run_clean dbg idna None None input).
Proof. exact (conj run_clean_file_refuted run_clean_needs_file_clause). Qed.
Print Assumptions C09_run_clean_file_refuted.
Check (eq_refl : wq_input = B "file://x/C:/").

(* the three mutators that call Host::parse (Url::set_host, quirks set_host / set_hostname; a refused host leaves the URL
   as it was with either oracle): a step from a well-formed URL whose RESULT has its host text outside the class is a
   clean step (the step with the capped oracle is the same step) *)
Theorem C09_step_clean_result : forall dbg idna, IdnaOK2 idna -> forall u o u', wf_b u = true ->
  C05_History.apply_op dbg (host_parse idna) host_parse_opaque host_display u o = Some u' ->
  known_c10_long (ht u') = false -> step_clean dbg idna u o.
Proof. exact step_clean_of_result. Qed.
Check C09_step_clean_result : forall dbg idna, IdnaOK2 idna -> forall u o u', wf_b u = true ->
  C05_History.apply_op dbg (host_parse idna) host_parse_opaque host_display u o = Some u' ->
  known_c10_long (ht u') = false ->
  C05_History.apply_op dbg (host_parse (cap idna)) host_parse_opaque host_display u o
    = C05_History.apply_op dbg (host_parse idna) host_parse_opaque host_display u o.
Print Assumptions C09_step_clean_result.

Example C09_res_clean_examples :
  match parse_url true (host_parse idna_long) host_parse_opaque host_display None None (B "http://a.b:81/p") with
  | POk u => res_clean u && list_eqb (ht u) (B "a.b")
             && match C05_History.apply_op true (host_parse idna_long) host_parse_opaque host_display u (C05_History.OQHost (B "c.d:82")) with
                | Some u' => list_eqb (ser u') (B "http://c.d:82/p") && negb (known_c10_long (ht u'))
                | None => false
                end
  | _ => false
  end = true
  /\ match parse_url true (host_parse idna_long) host_parse_opaque host_display None None (B "file://a.b/p") with
     | POk u => res_clean u | _ => false end = true
  /\ match parse_url true (host_parse idna_long) host_parse_opaque host_display None None (B "http://x/") with
     | POk u => res_clean u | _ => true end = false.
Proof. exact res_clean_examples. Qed.

(* ---- the *_model theorems of C02 / C03 / C05 (stated relative to IdnaOK, which the idna crate does not satisfy:
   C09_long_model) for the oracle ITSELF: IdnaOK2 + the result-level premise (parse results) or the histories of the capped model ---- *)
(* C02 classes (i)-(iv): C09_inst2_C02_reparse_nonfile with the per-run premise replaced by the host text of the result *)
Theorem C09_inst2_C02_reparse_nonfile_res : forall dbg idna, IdnaOK2 idna -> forall input u,
  usv_list input -> nonfile_input input = true ->
  parse_url dbg (host_parse idna) host_parse_opaque host_display None None input = POk u ->
  b_scheme u <> s_file -> known_c10_long (ht u) = false ->
  parse_url dbg (host_parse idna) host_parse_opaque host_display None None (utf8_lossy (ser u)) = POk u
  /\ run_clean dbg idna None None (utf8_lossy (ser u)) /\ wf_b u = true /\ ascii (ser u).
Proof.
  exact (fun dbg idna OK input u Hu Hc Hp Hn K => reparse_nonfile_model2 dbg idna OK input u Hu Hc Hp
           (run_clean_of_result_nonfile dbg idna OK None None input u I Hp Hn K)).
Qed.
Print Assumptions C09_inst2_C02_reparse_nonfile_res.

(* C03_parse_reachability / C05_parse_base_ok (C09_inst_C03_parse_reachability, C09_inst_C05_parse_base_ok) *)
Theorem C09_inst2_C03_parse_reachability : forall dbg idna, IdnaOK2 idna -> forall ovr base input u,
  match base with Some b => base_ok b = true /\ C06_Suffix.host_text_ok b | None => True end ->
  parse_url dbg (host_parse idna) host_parse_opaque host_display ovr base input = POk u -> res_clean u = true ->
  (wf_b u = true /\ C06_Suffix.host_text_ok u) /\ base_ok u = true.
Proof.
  exact (fun dbg idna OK ovr base input u =>
           clean_transfer dbg idna OK (fun b => _ /\ _) (fun u => (_ /\ _) /\ _) ovr base input u (fun b => @proj1 _ _)
             (fun Hb H => conj (parse_wf_model dbg (cap idna) (IdnaOK2_cap idna OK) ovr base input u Hb H)
                               (proj1 (parse_base_ok_model dbg (cap idna) (IdnaOK2_cap idna OK) ovr base input u Hb H)))).
Qed.
Print Assumptions C09_inst2_C03_parse_reachability.

(* C05_components_parse (C09_inst_C05_components_parse): the five component clauses of the property text *)
Theorem C09_inst2_C05_components_parse : forall dbg idna, IdnaOK2 idna -> forall dbg' ovr base input u,
  match base with Some b => CInv dbg' b /\ base_ok b = true | None => True end ->
  parse_url dbg (host_parse idna) host_parse_opaque host_display ovr base input = POk u -> res_clean u = true ->
  CInv dbg' u /\ components_clean dbg' u.
Proof.
  exact (fun dbg idna OK dbg' ovr base input u =>
           clean_transfer dbg idna OK (fun b => _ /\ _) (fun u => _ /\ _) ovr base input u (fun b => @proj2 _ _)
             (parse_components_model dbg (cap idna) (IdnaOK2_cap idna OK) dbg' ovr base input u)).
Qed.
Print Assumptions C09_inst2_C05_components_parse.

(* C03_reachability_full_model (the invariant inv03 = wfh, AS, PN, HE along parse, join and all mutators), C05_reachF_model
   (the property text of C05 along CReachF), C02_reach_partial4_model (the re-parse fixpoint along ReachC4) for the
   histories of the CAPPED model; the re-parse of C02 is a run with the oracle ITSELF and a clean one *)
Theorem C09_inst2_C03_reachability_full : forall dbg idna, IdnaOK2 idna -> forall u,
  C02_Reach3.Reachable3 dbg (host_parse (cap idna)) host_parse_opaque host_display u -> C03_ParseFront.inv03 u.
Proof. exact reach3_model2. Qed.
Print Assumptions C09_inst2_C03_reachability_full.

Theorem C09_inst2_C05_reachF : forall dbg idna, IdnaOK2 idna -> forall u,
  C05_ReachF.CReachF dbg (host_parse (cap idna)) host_parse_opaque host_display u ->
  (wfh u /\ components_clean dbg u) /\ C05_Alphabet.alphabet_ok u /\ sharp u /\ base_ok u = true
  /\ (C05_HostText.spb u = true -> forall s, host_str u = Some (Some s) -> C05_HostInst.host_text_clean s).
Proof. exact reachF_model2. Qed.
Print Assumptions C09_inst2_C05_reachF.

Theorem C09_inst2_C02_reach_partial4 : forall dbg idna, IdnaOK2 idna -> forall u,
  C02_Reach5.ReachC4 dbg (host_parse (cap idna)) host_parse_opaque host_display u ->
  parse_url dbg (host_parse idna) host_parse_opaque host_display None None (utf8_lossy (ser u)) = POk u
  /\ run_clean dbg idna None None (utf8_lossy (ser u)) /\ wf_b u = true /\ ascii (ser u).
Proof.
  exact (fun dbg idna OK u R => reparse_transfer dbg idna u _
           (C02_Reach5.reach_partial4_model dbg (cap idna) (IdnaOK2_cap idna OK) u R)).
Qed.
Print Assumptions C09_inst2_C02_reach_partial4.

(* the history theorems for the model linked with the REAL oracle *)
From RU Require Import Proofs.C09_HistReal.
From RU Require Proofs.C02_Stmt4 Proofs.C02_Reach7 Proofs.C02_Hist Proofs.C02_JoinPath Proofs.C02_JoinAbs Proofs.C02_AuthMain
  Proofs.C05_CompSteps3 Model.QueryPairs Proofs.C15_Ser.

(* ---- the histories of the capped model ARE histories of the model itself, relation by relation (so that
   C09_inst2_C03_reachability_full / C09_inst2_C05_reachF / C09_inst2_C02_reach_partial4 speak of the model's own histories): a capped run that succeeds is the
   run itself, a capped step is the step itself or returns the URL unchanged, the known-step classes and the step gates do
   not look at Host::parse.  No premise on the oracle ---- *)
Theorem C09_cap_history2 : forall dbg idna,
  (forall u, C02_Reach3.Reachable3 dbg (host_parse (cap idna)) host_parse_opaque host_display u ->
             C02_Reach3.Reachable3 dbg (host_parse idna) host_parse_opaque host_display u)
  /\ (forall u, C02_Stmt4.Reachable4 dbg (host_parse (cap idna)) host_parse_opaque host_display u ->
                C02_Stmt4.Reachable4 dbg (host_parse idna) host_parse_opaque host_display u)
  /\ (forall u, C05_ReachF.CReachF dbg (host_parse (cap idna)) host_parse_opaque host_display u ->
                C05_ReachF.CReachF dbg (host_parse idna) host_parse_opaque host_display u)
  /\ (forall u, C02_Reach7.ReachC6 dbg (host_parse (cap idna)) host_parse_opaque host_display u ->
                C02_Reach7.ReachC6 dbg (host_parse idna) host_parse_opaque host_display u).
Proof.
  exact (fun dbg idna => conj (Reachable3_cap dbg idna) (conj (Reachable4_cap dbg idna)
           (conj (CReachF_cap dbg idna) (ReachC6_cap dbg idna)))).
Qed.
Print Assumptions C09_cap_history2.

(* ---- C02_reach_partial6_model (re-parse fixpoint along ReachC6; premise IdnaOK, which the idna crate does not satisfy) for the
   histories of the capped model: they are ReachC6 histories of the model itself, the re-parse is a run with the oracle
   ITSELF and a clean one ---- *)
Theorem C09_inst2_C02_reach_partial6 : forall dbg idna, IdnaOK2 idna -> forall u,
  C02_Reach7.ReachC6 dbg (host_parse (cap idna)) host_parse_opaque host_display u ->
  C02_Reach7.ReachC6 dbg (host_parse idna) host_parse_opaque host_display u
  /\ parse_url dbg (host_parse idna) host_parse_opaque host_display None None (utf8_lossy (ser u)) = POk u
  /\ run_clean dbg idna None None (utf8_lossy (ser u)) /\ wf_b u = true /\ ascii (ser u).
Proof. exact reach_partial6_model2. Qed.
Print Assumptions C09_inst2_C02_reach_partial6.

(* ---- result-clean histories: the SAME relations over the model with the oracle itself, each parse / join result
   passing res_clean and each step result having its host text outside Known_C10_long (host_clean) - predicates on the
   records of the history, as the Rust twin known_c10_long(host_str) computes them.  The constructors: ---- *)
Check (eq_refl : host_clean = fun u => known_c10_long (ht u) = false).
Check R3K_parse : forall dbg idna ovr input u, usv_list input ->
  parse_url dbg (host_parse idna) host_parse_opaque host_display ovr None input = POk u ->
  C02_Reach.Known_file_drive u = false -> res_clean u = true -> Reachable3K dbg idna u.
Check R3K_join : forall dbg idna ovr b input u, Reachable3K dbg idna b -> usv_list input ->
  parse_url dbg (host_parse idna) host_parse_opaque host_display ovr (Some b) input = POk u ->
  C02_Reach.Known_file_drive u = false -> res_clean u = true -> Reachable3K dbg idna u.
Check R3K_step : forall dbg idna u o u', Reachable3K dbg idna u -> C02_Reach.op_args_ok o ->
  C02_Hist.known_step2 dbg (host_parse idna) host_parse_opaque host_display u o = false ->
  C02_Reach.apply_op dbg (host_parse idna) host_parse_opaque host_display u o = Some u' ->
  C02_Reach.Known_file_drive u' = false -> host_clean u' -> Reachable3K dbg idna u'.
Check R3K_qpm : forall dbg idna u ops u', Reachable3K dbg idna u -> Forall C15_Ser.op_ok ops ->
  QueryPairs.query_pairs_session dbg u ops = Some u' -> C02_Reach.Known_file_drive u' = false -> Reachable3K dbg idna u'.
Check RC6K_parse : forall dbg idna ovr input u, usv_list input -> C02_AuthMain.nonfile_input input = true ->
  parse_url dbg (host_parse idna) host_parse_opaque host_display ovr None input = POk u -> res_clean u = true -> ReachC6K dbg idna u.
Check RC6K_join_rel : forall dbg idna ovr b input u, ReachC6K dbg idna b -> usv_list input -> C02_JoinPath.rel_ref input = true ->
  parse_url dbg (host_parse idna) host_parse_opaque host_display ovr (Some b) input = POk u -> res_clean u = true -> ReachC6K dbg idna u.
Check RC6K_join_scheme : forall dbg idna ovr b input u, ReachC6K dbg idna b -> usv_list input -> C02_AuthMain.nonfile_input input = true ->
  parse_url dbg (host_parse idna) host_parse_opaque host_display ovr (Some b) input = POk u -> res_clean u = true -> ReachC6K dbg idna u.
Check RC6K_join_abs_any : forall dbg idna ovr b input u, Reachable4K dbg idna b -> usv_list input -> C02_JoinAbs.abs_ref b input = true ->
  parse_url dbg (host_parse idna) host_parse_opaque host_display ovr (Some b) input = POk u -> res_clean u = true -> ReachC6K dbg idna u.
Check RC6K_step : forall dbg idna u o u', ReachC6K dbg idna u -> C02_Reach.op_args_ok o ->
  C02_Stmt4.known_step3 dbg (host_parse idna) host_parse_opaque host_display u o = false ->
  C02_Reach.apply_op dbg (host_parse idna) host_parse_opaque host_display u o = Some u' ->
  nlen (ser u') <= U32_MAX_P -> host_clean u' -> ReachC6K dbg idna u'.
Check RC6K_qpm : forall dbg idna u ops u', ReachC6K dbg idna u -> Forall C15_Ser.op_ok ops ->
  QueryPairs.query_pairs_session dbg u ops = Some u' -> nlen (ser u') <= U32_MAX_P -> ReachC6K dbg idna u'.
Check CRFK_parse : forall dbg idna ovr input u,
  parse_url dbg (host_parse idna) host_parse_opaque host_display ovr None input = POk u -> res_clean u = true -> CReachFK dbg idna u.
Check CRFK_join : forall dbg idna ovr b input u, CReachFK dbg idna b ->
  parse_url dbg (host_parse idna) host_parse_opaque host_display ovr (Some b) input = POk u -> res_clean u = true -> CReachFK dbg idna u.
Check CRFK_step : forall dbg idna u o u', CReachFK dbg idna u ->
  C05_CompSteps3.step_gate3 (host_parse idna) host_parse_opaque host_display u o u' ->
  C05_History.apply_op dbg (host_parse idna) host_parse_opaque host_display u o = Some u' -> host_clean u' -> CReachFK dbg idna u'.
Check CRFK_qpm : forall dbg idna u ops u', CReachFK dbg idna u -> Forall C15_Ser.op_ok ops ->
  QueryPairs.query_pairs_session dbg u ops = Some u' -> CReachFK dbg idna u'.

(* a result-clean history of the model is a history of the capped model AND (C09_cap_history2) a history of the model *)
Theorem C09_clean_history : forall dbg idna, IdnaOK2 idna ->
  (forall u, Reachable3K dbg idna u -> C02_Reach3.Reachable3 dbg (host_parse (cap idna)) host_parse_opaque host_display u
                                     /\ C02_Reach3.Reachable3 dbg (host_parse idna) host_parse_opaque host_display u)
  /\ (forall u, Reachable4K dbg idna u -> C02_Stmt4.Reachable4 dbg (host_parse (cap idna)) host_parse_opaque host_display u)
  /\ (forall u, ReachC6K dbg idna u -> C02_Reach7.ReachC6 dbg (host_parse (cap idna)) host_parse_opaque host_display u
                                    /\ C02_Reach7.ReachC6 dbg (host_parse idna) host_parse_opaque host_display u)
  /\ (forall u, CReachFK dbg idna u -> C05_ReachF.CReachF dbg (host_parse (cap idna)) host_parse_opaque host_display u
                                    /\ C05_ReachF.CReachF dbg (host_parse idna) host_parse_opaque host_display u).
Proof.
  exact (fun dbg idna OK =>
    conj (fun u H => conj (Reachable3K_cap dbg idna OK u H) (Reachable3_cap dbg idna u (Reachable3K_cap dbg idna OK u H)))
   (conj (Reachable4K_cap dbg idna OK)
   (conj (fun u H => conj (ReachC6K_cap dbg idna OK u H) (ReachC6_cap dbg idna u (ReachC6K_cap dbg idna OK u H)))
         (fun u H => conj (CReachFK_cap dbg idna OK u H) (CReachF_cap dbg idna u (CReachFK_cap dbg idna OK u H)))))).
Qed.
Print Assumptions C09_clean_history.

(* ---- C03_reachability_full_model, C05_reachF_model, C02_reach_partial6_model as statements about the model with the
   REAL oracle: premise IdnaOK2 (derived for the uts46 model in C09_IdnaOK2_uts46) + a result-clean history ---- *)
Theorem C09_real_C03_reachability_full : forall dbg idna, IdnaOK2 idna -> forall u,
  Reachable3K dbg idna u -> C03_ParseFront.inv03 u.
Proof. exact (fun dbg idna OK u H => reach3_model2 dbg idna OK u (Reachable3K_cap dbg idna OK u H)). Qed.
Print Assumptions C09_real_C03_reachability_full.

Theorem C09_real_C05_reachF : forall dbg idna, IdnaOK2 idna -> forall u, CReachFK dbg idna u ->
  (wfh u /\ components_clean dbg u) /\ C05_Alphabet.alphabet_ok u /\ sharp u /\ base_ok u = true
  /\ (C05_HostText.spb u = true -> forall s, host_str u = Some (Some s) -> C05_HostInst.host_text_clean s).
Proof. exact (fun dbg idna OK u H => reachF_model2 dbg idna OK u (CReachFK_cap dbg idna OK u H)). Qed.
Print Assumptions C09_real_C05_reachF.

Theorem C09_real_C02_reach_partial6 : forall dbg idna, IdnaOK2 idna -> forall u, ReachC6K dbg idna u ->
  parse_url dbg (host_parse idna) host_parse_opaque host_display None None (utf8_lossy (ser u)) = POk u
  /\ run_clean dbg idna None None (utf8_lossy (ser u)) /\ wf_b u = true /\ ascii (ser u).
Proof. exact (fun dbg idna OK u H => proj2 (reach_partial6_model2 dbg idna OK u (ReachC6K_cap dbg idna OK u H))). Qed.
Print Assumptions C09_real_C02_reach_partial6.

(* non-vacuity (stand-in oracle idna_long: IdnaOK2 holds, IdnaOK does not): Url::parse("http://a.b:81/p") followed by
   quirks set_host("c.d:82") is a result-clean history in all three relations *)
Example C09_real_history_inhabited :
  exists u u',
    parse_url true (host_parse idna_long) host_parse_opaque host_display None None (B "http://a.b:81/p") = POk u
    /\ C02_Reach.apply_op true (host_parse idna_long) host_parse_opaque host_display u (C02_Reach.OQHost (B "c.d:82")) = Some u'
    /\ ser u' = B "http://c.d:82/p"
    /\ Reachable3K true idna_long u' /\ ReachC6K true idna_long u' /\ CReachFK true idna_long u'.
Proof. exact hist_real_inhabited. Qed.
