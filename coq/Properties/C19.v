(* Properties/C19.v - MIME types.  Statements of property C19; the lemmas are in Proofs/C19_*.v (and
   Proofs/C17_Mime.v for C19_spec_equiv).  C19_classes and C19_get assemble theirs in a line or two, the
   example C19_premises_hold is computed.
   Vocabulary (Proofs/C19_Tables.v, C19_Normal.v, C19_Pure.v):
     rfc7230_tchar c      = is_alnum c || memb c [!#$%&'*+-.^_`|~]
     lower_http_token s   = s <> [] /\ every c of s: rfc7230_tchar c = true /\ is_upper c = false
     value_wf v           = every code point of v before its first ';' is TAB, 0x20-0x7E or 0x80-0xFF
     usv_mime m           = all strings of m are lists of Unicode scalar values
   A `&str` is a `list N` satisfying usv_list. *)
From RU Require Import Base.Prelude Gen.Tables Model.Mime
  Proofs.C19_Tables Proofs.C19_Pure Proofs.C19_Normal Proofs.C19_RT.
From RU Require Spec.MimeSniff Proofs.C17_Mime.

(* the regenerated IS_HTTP_TOKEN table is exactly the RFC 7230 token set, and the lookup never
   leaves the table for a byte *)
Theorem C19_table : forall b, b < 256 ->
  is_http_token_at b = Ok (is_alnum b || memb b [33; 35; 36; 37; 38; 39; 42; 43; 45; 46; 94; 95; 96; 124; 126]).
Proof. exact is_http_token_at_spec. Qed.
Check C19_table : forall b, b < 256 ->
  is_http_token_at b = Ok (is_alnum b || memb b [33; 35; 36; 37; 38; 39; 42; 43; 45; 46; 94; 95; 96; 124; 126]).
Print Assumptions C19_table.

(* the other regenerated character classes: HTTP whitespace, HTTP quoted-string token code points,
   and what Display escapes *)
Theorem C19_classes : forall c,
  http_whitespace c = memb c [9; 10; 13; 32]
  /\ valid_value_char c = ((c =? 9) || ((32 <=? c) && (c <=? 126)) || ((128 <=? c) && (c <=? 255)))
  /\ memb c T_MIME_ESCAPED = ((c =? 34) || (c =? 92)).
Proof. intros c. split; [exact (http_whitespace_spec c)|]. split; [exact (valid_value_char_spec c)|exact (mime_escaped_spec c)]. Qed.
Check C19_classes : forall c,
  http_whitespace c = memb c [9; 10; 13; 32]
  /\ valid_value_char c = ((c =? 9) || ((32 <=? c) && (c <=? 126)) || ((128 <=? c) && (c <=? 255)))
  /\ memb c T_MIME_ESCAPED = ((c =? 34) || (c =? 92)).
Print Assumptions C19_classes.

(* the byte-indexed token test on the UTF-8 encoding is the code-point test (non-ASCII is never a token) *)
Theorem C19_token_bytes : forall s, usv_list s ->
  only_http_token_code_points s = Ok (forallb rfc7230_tchar s).
Proof. exact only_tok_spec. Qed.
Check C19_token_bytes : forall s, usv_list s ->
  only_http_token_code_points s = Ok (forallb rfc7230_tchar s).
Print Assumptions C19_token_bytes.

(* round trip: the serialization of every parse result parses to the same type, subtype and parameter list *)
Theorem C19_rt : forall s m, usv_list s -> parse s = Ok (Some m) ->
  exists d, display m = Ok d /\ parse d = Ok (Some m).
Proof. exact parse_display_rt. Qed.
Check C19_rt : forall s m, usv_list s -> parse s = Ok (Some m) ->
  exists d, display m = Ok d /\ parse d = Ok (Some m).
Print Assumptions C19_rt.

(* the normal form is also sufficient: every value in normal form (parser-made or not) round-trips *)
Theorem C19_rt_wf : forall m, usv_mime m ->
  lower_http_token (m_type m) -> lower_http_token (m_subtype m) ->
  Forall (fun p => lower_http_token (fst p) /\ value_wf (snd p)) (m_params m) ->
  NoDup (map fst (m_params m)) ->
  exists d, display m = Ok d /\ parse d = Ok (Some m).
Proof. exact display_parse_wf. Qed.
Check C19_rt_wf : forall m, usv_mime m ->
  lower_http_token (m_type m) -> lower_http_token (m_subtype m) ->
  Forall (fun p => lower_http_token (fst p) /\ value_wf (snd p)) (m_params m) ->
  NoDup (map fst (m_params m)) ->
  exists d, display m = Ok d /\ parse d = Ok (Some m).
Print Assumptions C19_rt_wf.

(* normal form of every parse result *)
Theorem C19_normal : forall s m, usv_list s -> parse s = Ok (Some m) ->
  lower_http_token (m_type m) /\ lower_http_token (m_subtype m)
  /\ Forall (fun p => lower_http_token (fst p) /\ value_wf (snd p)) (m_params m)
  /\ NoDup (map fst (m_params m)).
Proof. exact parse_normal. Qed.
Check C19_normal : forall s m, usv_list s -> parse s = Ok (Some m) ->
  lower_http_token (m_type m) /\ lower_http_token (m_subtype m)
  /\ Forall (fun p => lower_http_token (fst p) /\ value_wf (snd p)) (m_params m)
  /\ NoDup (map fst (m_params m)).
Print Assumptions C19_normal.

(* parsing never panics (and the loop fuel of the model never runs out); serializing a value made of
   strings never panics *)
Theorem C19_total :
  (forall s, usv_list s -> exists r, parse s = Ok r)
  /\ (forall m, usv_mime m -> exists d, display m = Ok d).
Proof. split; [exact parse_total|exact display_total]. Qed.
Check C19_total :
  (forall s, usv_list s -> exists r, parse s = Ok r)
  /\ (forall m, usv_mime m -> exists d, display m = Ok d).
Print Assumptions C19_total.

(* get_parameter returns exactly the pairs of the parameter list of a parse result *)
Theorem C19_get : forall s m n v, usv_list s -> parse s = Ok (Some m) ->
  (In (n, v) (m_params m) <-> get_parameter (m_params m) n = Some v).
Proof.
  intros s m n v Hs H.
  exact (get_parameter_in (m_params m) (proj2 (proj2 (proj2 (parse_normal s m Hs H)))) n v).
Qed.
Check C19_get : forall s m n v, usv_list s -> parse s = Ok (Some m) ->
  (In (n, v) (m_params m) <-> get_parameter (m_params m) n = Some v).
Print Assumptions C19_get.

(* conformance: on every string of HTTP quoted-string token code points (TAB, 0x20-0x7E, 0x80-0xFF - finding
   F-C19-2 needs a code point outside) Mime::from_str IS the MIME Sniffing Standard's "parse a MIME type"
   (Spec/MimeSniff.v, validated against the vendored WPT mime-types vectors); proved for C17 in
   Proofs/C17_Mime.v by a simulation between the crate's split-at-';' parser and the Standard's position loop *)
Theorem C19_spec_equiv : forall t, Forall (fun c => MimeSniff.http_quoted_string_token_cp c = true) t ->
  parse t = Ok (option_map (fun r => mk_mime (MimeSniff.mt_type r) (MimeSniff.mt_subtype r) (MimeSniff.mt_parameters r))
                           (MimeSniff.parse_a_mime_type t)).
Proof. exact C17_Mime.mime_parse_equiv. Qed.
Check C19_spec_equiv : forall t, Forall (fun c => MimeSniff.http_quoted_string_token_cp c = true) t ->
  parse t = Ok (option_map (fun r => mk_mime (MimeSniff.mt_type r) (MimeSniff.mt_subtype r) (MimeSniff.mt_parameters r))
                           (MimeSniff.parse_a_mime_type t)).
Print Assumptions C19_spec_equiv.

(* non-vacuity: `TEXT/Plain ;A=1;a=2;x="p;\"q\\";y=` parses (the duplicate `a` and the empty `y`
   are dropped, the quoted value is unescaped across the ';'), its serialization
   `text/plain;a=1;x="p;\"q\\"` parses to the same value; `text/plain;A=1;A=2` (the input of
   finding F-C19-1, where the crate before its fix kept both parameters) has one parameter; a non-ASCII
   type is rejected without a panic; the two F-C19-2 witnesses. *)
Example C19_premises_hold :
  let s := [84;69;88;84;47;80;108;97;105;110;32;59;65;61;49;59;97;61;50;59;120;61;34;112;59;92;34;113;92;92;34;59;121;61] in
  let m := mk_mime [116;101;120;116] [112;108;97;105;110] [([97], [49]); ([120], [112;59;34;113;92])] in
  let d := [116;101;120;116;47;112;108;97;105;110;59;97;61;49;59;120;61;34;112;59;92;34;113;92;92;34] in
  usv_list s /\ parse s = Ok (Some m) /\ display m = Ok d /\ parse d = Ok (Some m)
  /\ parse [116;101;120;116;47;112;108;97;105;110;59;65;61;49;59;65;61;50]
     = Ok (Some (mk_mime [116;101;120;116] [112;108;97;105;110] [([97], [49])]))
  /\ parse [233; 47; 98] = Ok None
  (* F-C19-2, a deviation from the MIME Sniffing Standard (property C17; C19_spec_equiv excludes its inputs,
     C19 itself claims nothing about them): valid_value looks at the raw first ';'-piece of a
     quoted value only - `a/b;x="a;<U+0001>"` keeps the control character, `a/b;x="a"<U+0001>` loses x *)
  /\ parse [97;47;98;59;120;61;34;97;59;1;34] = Ok (Some (mk_mime [97] [98] [([120], [97;59;1])]))
  /\ parse [97;47;98;59;120;61;34;97;34;1] = Ok (Some (mk_mime [97] [98] [])).
Proof.
  cbv zeta. split; [|vm_compute; repeat split].
  repeat constructor; unfold is_usv; lia.
Qed.
