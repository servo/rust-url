(* Properties/C17.v - data: URL processing = URL parsing + Fetch data: URL processor.
   Statements of property C17, closed by `exact` from the lemmas of Proofs/C17_*.v; the three Examples
   are computed here. *)
From RU Require Import Base.Prelude Base.Utf8 Model.AsciiSet Gen.Tables Model.PercentEncoding
  Model.HostT Model.UrlRecord Model.Parser Model.Mime Model.Base64 Model.DataUrl Model.DataUrlTie Model.KnownC17
  Spec.Infra Spec.MimeSniff Spec.Fetch
  Proofs.C02_Parts Proofs.C18_BodyRef Proofs.C17_Tables Proofs.C17_Total Proofs.C17_Decode Proofs.C17_Main
  Proofs.C17_Bridge Proofs.C17_Fragment Proofs.C17_Body Proofs.C17_BodyUrl
  Proofs.C17_Header Proofs.C17_HeaderUrl Proofs.C17_Mime Proofs.C17_Partial
  Proofs.C17_HeaderQ Proofs.C17_Full Proofs.C17_Known Proofs.C17_Scheme Proofs.C17_Final.

(* the byte classes and literals of data-url/src/lib.rs (Gen/Tables.v, extracted from the source) are
   the Standards': the C0-control / query / fragment percent-encode sets (as url/src/parser.rs defines
   them: T_CONTROLS, T_QUERY, T_FRAGMENT, themselves tied to the Standard by C01_sets), ASCII tab and
   newlines, "data", "text/plain", the fallback text/plain;charset=US-ASCII, "base64" read backwards *)
Theorem C17_tables :
  (forall b, is_skipped b = (b =? 9) || (b =? 10) || (b =? 13))
  /\ (forall c, is_c0_or_space c = (c <=? 32))
  /\ (forall c, is_header_trim c = (c =? 32) || ((c =? 9) || (c =? 10) || (c =? 13)))
  /\ (forall b, b < 256 -> in_ranges b T_DU_HDR_ENC = should_encode T_CONTROLS b)
  /\ (forall b, b < 256 ->
        in_ranges b T_DU_HDR_ENC || memb b T_DU_HDR_QENC = should_encode T_QUERY b && negb (b =? 35))
  /\ (forall b, b < 256 -> in_ranges b T_DU_FRAG_ENC = should_encode T_FRAGMENT b)
  /\ (forall b, b < 256 -> DataUrl.percent_encode b = [37; hex_upper (b / 16); hex_upper (b mod 16)])
  /\ (T_DU_TRIM_MAX = 32 /\ T_DU_SCHEME = s_data /\ T_DU_COLON = 58 /\ T_DU_COMMA = 44 /\ T_DU_HASH = 35
      /\ T_DU_HDR_PREFIX_IF = 59 /\ T_DU_HDR_PREFIX = text_plain /\ T_DU_HDR_QMARK = 63
      /\ record_of_mime fallback_mime = text_plain_us_ascii
      /\ T_DU_B64_EXACT ++ T_DU_B64_NOCASE = base64_reversed /\ T_DU_B64_SKIP = 32 /\ T_DU_B64_SEP = 59
      /\ length T_DU_HEX_UPPER = 16%nat).
Proof.
  exact (conj is_skipped_spec (conj is_c0_or_space_spec (conj is_header_trim_spec (conj hdr_enc_is_controls
        (conj hdr_qenc_is_query (conj frag_enc_is_fragment (conj percent_encode_spec du_literals))))))).
Qed.
Print Assumptions C17_tables.

(* The statement of C17.  It is proved as Theorem C17 below, after its parts (each a theorem under its
   own name) and before the examples and the refutations inside Known_C17. *)
Definition C17_statement : Prop := Proofs.C17_Main.C17_statement.
Check (eq_refl : C17_statement =
  forall (dbg : bool) (hp ho : list N -> result host) (hd : host -> list N) (s : list N) (u : url),
    usv_list s ->
    parse_url dbg hp ho hd None None s = POk u -> url_is_data u = true ->
    ~ Known_C17 s ->
    fetch_view (process_and_decode s) = fetch_of_url u).

(* no Panic outcome, and no fuel exhaustion, for any &str: every byte-indexed slice of
   pretend_parse_data_url, find_comma_before_fragment, remove_base64_suffix and the body decoders is
   on a char boundary / inside the string; Mime::from_str gets a string of scalar values *)
Theorem C17_total : forall s, usv_list s ->
  (exists r, DataUrl.process s = Ok r)
  /\ (forall site, process_and_decode s <> PdPanic site) /\ process_and_decode s <> PdOutOfFuel.
Proof. exact process_and_decode_total. Qed.
Check C17_total : forall s, usv_list s ->
  (exists r, DataUrl.process s = Ok r)
  /\ (forall site, process_and_decode s <> PdPanic site) /\ process_and_decode s <> PdOutOfFuel.
Print Assumptions C17_total.

(* decode_to_vec in closed form (for every DataUrl value): the body is body_ref of the text after the
   comma (up to the first '#', ASCII tab / newlines dropped, %XY decoded when the two hex digits follow
   the '%' directly - Proofs/C18_BodyRef.v), run through the crate's forgiving-base64 decoder when the
   flag is set; the fragment is what follows the first '#' *)
Theorem C17_decode : forall u,
  DataUrl.decode_to_vec u =
  let (out, fragment) := body_ref (du_encoded_body_plus_fragment u) in
  if du_base64 u then
    match Model.Base64.decode_to_vec out with
    | inl v => DecOk v fragment
    | inr e => DecInvalidBase64 e
    end
  else DecOk out fragment.
Proof. exact decode_to_vec_ref. Qed.
Print Assumptions C17_decode.

(* the base64 clause, via C18_spec: with the flag, the body is the Infra Standard's forgiving-base64
   decode of the body without the flag, and decode_to_vec fails exactly when Infra fails *)
Theorem C17_base64 : forall u,
  let plain := DataUrl.decode_to_vec (mk_data_url (du_mime_type u) false (du_encoded_body_plus_fragment u)) in
  exists out fragment, plain = DecOk out fragment /\
    (du_base64 u = false -> DataUrl.decode_to_vec u = DecOk out fragment) /\
    (du_base64 u = true ->
       match forgiving_base64_decode out with
       | Some v => DataUrl.decode_to_vec u = DecOk v fragment
       | None => exists e, DataUrl.decode_to_vec u = DecInvalidBase64 e
       end).
Proof. exact decode_base64_infra. Qed.
Print Assumptions C17_base64.

(* the MIME clause, first half: the string handed to Mime::from_str is printable ASCII (so the
   deviation F-C19-2 of the crate's MIME parser, which needs a code point outside 0x20..0x7E, cannot be
   reached from a data: URL), and the result is the parse result or text/plain;charset=US-ASCII.
   The second half, that Mime::from_str on such a string is the Standard's "parse a MIME type", is
   C17_mime_equiv / C17_mime below. *)
Theorem C17_mime_fallback : forall h m b, bytes h -> parse_header h = Ok (m, b) ->
  exists t, bytes t /\ Forall printable (header_string t)
    /\ (Mime.parse (header_string t) = Ok (Some m)
        \/ (Mime.parse (header_string t) = Ok None /\ record_of_mime m = text_plain_us_ascii)).
Proof. exact parse_header_mime. Qed.
Print Assumptions C17_mime_fallback.

(* Opaque-path data: URLs. *)

(* pretend_parse_data_url is the front of the URL parser: same C0 / space trimming, same tab / newline
   skipping, same case-insensitive scheme; what it returns is the UTF-8 of what the parser has left
   after "data:" *)
Theorem C17_pretend_parse : forall s rem, usv_list s ->
  parse_scheme CUrlParser (input_new_trim_c0 s) = Some (s_data, rem) ->
  pretend_parse_data_url (utf8_encode s) = Ok (Some (utf8_encode rem)).
Proof. exact pretend_parse_is_parse_scheme. Qed.
Print Assumptions C17_pretend_parse.

(* the fragment: what DataUrl::decode returns, run through to_percent_encoded, is the fragment of the
   URL the parser model builds - for every string it accepts with scheme "data" and a text after
   "data:" that does not begin with '/' (opaque path), any host functions *)
Theorem C17_fragment : forall dbg hp ho hd s rem u, usv_list s ->
  parse_scheme CUrlParser (input_new_trim_c0 s) = Some (s_data, rem) -> inp_split_prefix_char 47 rem = None ->
  parse_url dbg hp ho hd None None s = POk u ->
  forall m b body fragment, process_and_decode s = PdOk m b (inl body) fragment ->
  fragment = url_fragment u.
Proof. exact fragment_is_url_fragment. Qed.
Check C17_fragment : forall dbg hp ho hd s rem u, usv_list s ->
  parse_scheme CUrlParser (input_new_trim_c0 s) = Some (s_data, rem) -> inp_split_prefix_char 47 rem = None ->
  parse_url dbg hp ho hd None None s = POk u ->
  forall m b body fragment, process_and_decode s = PdOk m b (inl body) fragment ->
  fragment = url_fragment u.
Print Assumptions C17_fragment.

(* percent-decoding does not see the percent-encoding the URL parser applies: for any marking of bytes
   to be encoded that never marks '%' or a hex digit (the C0-control and the query percent-encode sets) *)
Theorem C17_decode_encode : forall l, Forall mark_ok l ->
  percent_decode (enc_marked l) = percent_decode (map fst l).
Proof. exact (fun l => decode_marked (length l) l (Nat.le_refl _)). Qed.
Print Assumptions C17_decode_encode.

(* decode_without_base64 on the raw body = the Standard's percent-decode of the body with ASCII tab /
   newlines removed, unless a tab / newline sits inside a percent escape (K3, F-C17-4) *)
Theorem C17_body_ref : forall bs, k17_split_escape bs = false ->
  fst (body_ref bs) = percent_decode (clean_body bs).
Proof. exact (fun bs => body_ref_is_percent_decode (length bs) bs (Nat.le_refl _)). Qed.
Print Assumptions C17_body_ref.

(* the body: opaque path, no '?' in the header, no tab / newline inside an escape: the bytes
   decode_without_base64 writes are the Fetch processor's percent-decoding of what follows the first
   comma of the URL serialization without fragment (path state C0-control encoding and, after a '?' in
   the body, query state encoding included) *)
Theorem C17_body : forall dbg hp ho hd s rem u h B, usv_list s ->
  parse_scheme CUrlParser (input_new_trim_c0 s) = Some (s_data, rem) -> inp_split_prefix_char 47 rem = None ->
  parse_url dbg hp ho hd None None s = POk u ->
  find_comma_before_fragment (utf8_encode rem) = Ok (Some (h, B)) ->
  ~ In 63 h -> k17_split_escape B = false ->
  exists mimeType encodedBody,
    collect_until_comma (skipn 5 (url_without_fragment u)) = (mimeType, Some encodedBody)
    /\ string_percent_decode encodedBody = fst (body_ref B).
Proof. exact body_is_fetch_body. Qed.
Check C17_body : forall dbg hp ho hd s rem u h B, usv_list s ->
  parse_scheme CUrlParser (input_new_trim_c0 s) = Some (s_data, rem) -> inp_split_prefix_char 47 rem = None ->
  parse_url dbg hp ho hd None None s = POk u ->
  find_comma_before_fragment (utf8_encode rem) = Ok (Some (h, B)) ->
  ~ In 63 h -> k17_split_escape B = false ->
  exists mimeType encodedBody,
    collect_until_comma (skipn 5 (url_without_fragment u)) = (mimeType, Some encodedBody)
    /\ string_percent_decode encodedBody = fst (body_ref B).
Print Assumptions C17_body.

(* failure: when there is no comma before the fragment (DataUrl::process returns NoComma) the Fetch
   processor returns failure on the parsed URL - opaque path, any query *)
Theorem C17_no_comma : forall dbg hp ho hd s rem u, usv_list s ->
  parse_scheme CUrlParser (input_new_trim_c0 s) = Some (s_data, rem) -> inp_split_prefix_char 47 rem = None ->
  parse_url dbg hp ho hd None None s = POk u ->
  find_comma_before_fragment (utf8_encode rem) = Ok None ->
  Fetch.process (url_without_fragment u) = None.
Proof. exact no_comma_is_fetch_failure. Qed.
Print Assumptions C17_no_comma.

(* The header: the text between "data:" and the first comma. *)

(* the Fetch processor, with the steps that only look at mimeType (6: strip ASCII whitespace; 11: the
   base64-marker condition and 11.4-11.6; 12: the "text/plain" prefix) collected in fetch_header
   (Proofs/C17_Header.v): fetch_header mimeType = (the string given to "parse a MIME type", the flag) *)
Theorem C17_fetch_header : forall serialization,
  Fetch.process serialization =
  match collect_until_comma (remove_data_colon [100; 97; 116; 97; 58] serialization) with
  | (_, None) => None
  | (mimeType, Some encodedBody) =>
      let body := string_percent_decode encodedBody in
      match (if snd (fetch_header mimeType) then forgiving_base64_decode body else Some body) with
      | None => None
      | Some body' =>
          Some (match parse_a_mime_type (fst (fetch_header mimeType)) with
                | Some r => r
                | None => text_plain_us_ascii
                end, body')
      end
  end.
Proof. exact fetch_process_alt_eq. Qed.
Print Assumptions C17_fetch_header.

(* parse_header in closed form: header_of h (Proofs/C17_Header.v) = (the String handed to Mime::from_str,
   the base64 flag): trim, the backwards scan for ';' spaces* "base64", the "text/plain" prefix, the
   percent-encoding loop *)
Theorem C17_parse_header : forall h,
  parse_header h = bind (Mime.from_str (fst (header_of h)))
                        (fun parsed => Ok (match parsed with Some m => m | None => fallback_mime end, snd (header_of h))).
Proof. exact parse_header_eq. Qed.
Print Assumptions C17_parse_header.

(* header text and base64 flag: opaque path, no '?' in the header: what parse_header hands to the MIME
   parser, and its flag, are what steps 4-6, 11 and 12 of the processor make of the text between
   "data:" and the first comma of the URL serialization *)
Theorem C17_header_text : forall dbg hp ho hd s rem u h B, usv_list s ->
  parse_scheme CUrlParser (input_new_trim_c0 s) = Some (s_data, rem) -> inp_split_prefix_char 47 rem = None ->
  parse_url dbg hp ho hd None None s = POk u ->
  find_comma_before_fragment (utf8_encode rem) = Ok (Some (h, B)) ->
  ~ In 63 h ->
  exists mimeType encodedBody,
    collect_until_comma (skipn 5 (url_without_fragment u)) = (mimeType, Some encodedBody)
    /\ header_of h = fetch_header mimeType.
Proof. exact header_is_fetch_header. Qed.
Check C17_header_text : forall dbg hp ho hd s rem u h B, usv_list s ->
  parse_scheme CUrlParser (input_new_trim_c0 s) = Some (s_data, rem) -> inp_split_prefix_char 47 rem = None ->
  parse_url dbg hp ho hd None None s = POk u ->
  find_comma_before_fragment (utf8_encode rem) = Ok (Some (h, B)) ->
  ~ In 63 h ->
  exists mimeType encodedBody,
    collect_until_comma (skipn 5 (url_without_fragment u)) = (mimeType, Some encodedBody)
    /\ header_of h = fetch_header mimeType.
Print Assumptions C17_header_text.

(* the base64 flag alone, in the Standard's words: mimeType (stripped) ends with ';', U+0020s, "base64" *)
Theorem C17_base64_flag : forall dbg hp ho hd s rem u h B, usv_list s ->
  parse_scheme CUrlParser (input_new_trim_c0 s) = Some (s_data, rem) -> inp_split_prefix_char 47 rem = None ->
  parse_url dbg hp ho hd None None s = POk u ->
  find_comma_before_fragment (utf8_encode rem) = Ok (Some (h, B)) ->
  ~ In 63 h ->
  exists mimeType encodedBody,
    collect_until_comma (skipn 5 (url_without_fragment u)) = (mimeType, Some encodedBody)
    /\ forall m b, parse_header h = Ok (m, b) ->
       b = match ends_with_base64_marker (strip_leading_and_trailing_ascii_whitespace mimeType) with
           | Some _ => true
           | None => false
           end.
Proof. exact base64_flag_is_fetch. Qed.
Print Assumptions C17_base64_flag.

(* MIME parser equivalence: on every string of HTTP quoted-string token code points (TAB, 0x20-0x7E,
   0x80-0xFF; F-C19-2 needs a code point outside) Mime::from_str is the MIME Sniffing Standard's
   "parse a MIME type" *)
Theorem C17_mime_equiv : forall t, Forall (fun c => http_quoted_string_token_cp c = true) t ->
  Mime.parse t = Ok (option_map (fun r => mk_mime (mt_type r) (mt_subtype r) (mt_parameters r)) (parse_a_mime_type t)).
Proof. exact mime_parse_equiv. Qed.
Check C17_mime_equiv : forall t, Forall (fun c => http_quoted_string_token_cp c = true) t ->
  Mime.parse t = Ok (option_map (fun r => mk_mime (mt_type r) (mt_subtype r) (mt_parameters r)) (parse_a_mime_type t)).
Print Assumptions C17_mime_equiv.

(* the same on printable ASCII, which is all a data: URL header can contain (C17_mime_fallback):
   Proofs.C17_Main.C17_mime_statement *)
Theorem C17_mime : C17_mime_statement.
Proof. exact mime_statement_holds. Qed.
Check C17_mime : forall t, Forall printable t ->
  Mime.parse t = Ok (option_map (fun r => mk_mime (mt_type r) (mt_subtype r) (mt_parameters r)) (parse_a_mime_type t)).
Print Assumptions C17_mime.

(* the MIME type clause: the record DataUrl::mime_type returns is the one the processor computes *)
Theorem C17_mime_type : forall dbg hp ho hd s rem u h B, usv_list s ->
  parse_scheme CUrlParser (input_new_trim_c0 s) = Some (s_data, rem) -> inp_split_prefix_char 47 rem = None ->
  parse_url dbg hp ho hd None None s = POk u ->
  find_comma_before_fragment (utf8_encode rem) = Ok (Some (h, B)) ->
  ~ In 63 h ->
  exists mimeType encodedBody,
    collect_until_comma (skipn 5 (url_without_fragment u)) = (mimeType, Some encodedBody)
    /\ forall m b, parse_header h = Ok (m, b) ->
       record_of_mime m = match parse_a_mime_type (fst (fetch_header mimeType)) with
                          | Some r => r
                          | None => text_plain_us_ascii
                          end.
Proof. exact mime_type_is_fetch. Qed.
Print Assumptions C17_mime_type.

(* C17 for the class "opaque path, header without '?', body outside K3": MIME type record, body
   bytes (base64 or not), fragment, and failure (no comma / invalid base64) all agree.
   C17_opaque below is the same with "header outside K2" in place of "header without '?'". *)
Theorem C17_partial : forall dbg hp ho hd s rem u, usv_list s ->
  parse_scheme CUrlParser (input_new_trim_c0 s) = Some (s_data, rem) -> inp_split_prefix_char 47 rem = None ->
  parse_url dbg hp ho hd None None s = POk u ->
  (forall h B, find_comma_before_fragment (utf8_encode rem) = Ok (Some (h, B)) ->
               ~ In 63 h /\ k17_split_escape B = false) ->
  fetch_view (process_and_decode s) = fetch_of_url u.
Proof. exact opaque_noq_is_fetch. Qed.
Check C17_partial : forall dbg hp ho hd s rem u, usv_list s ->
  parse_scheme CUrlParser (input_new_trim_c0 s) = Some (s_data, rem) -> inp_split_prefix_char 47 rem = None ->
  parse_url dbg hp ho hd None None s = POk u ->
  (forall h B, find_comma_before_fragment (utf8_encode rem) = Ok (Some (h, B)) ->
               ~ In 63 h /\ k17_split_escape B = false) ->
  fetch_view (process_and_decode s) = fetch_of_url u.
Print Assumptions C17_partial.

(* the hypotheses of C17_partial (and of C17_header_text ...) hold for " DATA:Text/HTML;Charset=x;base64,W%20A==#a b" *)
Example C17_partial_premises :
  let s := [32;68;65;84;65;58;84;101;120;116;47;72;84;77;76;59;67;104;97;114;115;101;116;61;120;59;98;97;115;101;54;52;44;87;37;50;48;65;61;61;35;97;32;98] in
  exists rem u, usv_list s
    /\ parse_scheme CUrlParser (input_new_trim_c0 s) = Some (s_data, rem) /\ inp_split_prefix_char 47 rem = None
    /\ parse_url true toy_hp toy_hp toy_hd None None s = POk u
    /\ exists h B, find_comma_before_fragment (utf8_encode rem) = Ok (Some (h, B))
                   /\ forallb (fun c => negb (c =? 63)) h = true /\ k17_split_escape B = false
                   /\ snd (header_of h) = true.
Proof.
  cbv zeta. eexists. eexists. split; [apply usv_list_b; vm_compute; reflexivity|].
  split; [vm_compute; reflexivity|]. split; [vm_compute; reflexivity|]. split; [vm_compute; reflexivity|].
  eexists. eexists. split; [vm_compute; reflexivity|]. vm_compute. repeat split.
Qed.

(* Headers with '?'. *)

(* byte level: a header h (no '#') whose text without tab / newline is a ++ "?" ++ q (a without '?'),
   outside K2: parse_header computes what steps 6, 11, 12 make of  C0-encode(a) "?" query-encode(q),
   which is what the serializer writes (opaque path, then query) *)
Theorem C17_header_query : forall h a q, bytes h -> ~ In 35 h ->
  filter C02_Enc.not_tnl h = a ++ 63 :: q -> ~ In 63 a ->
  k17_query_space (filter C02_Enc.not_tnl h) = false ->
  header_of h = fetch_header (encode T_CONTROLS a ++ 63 :: encode T_QUERY q).
Proof. exact header_bytes_q. Qed.
Print Assumptions C17_header_query.

(* every opaque-path data: URL whose header is outside K2 and whose body is outside K3 *)
Theorem C17_opaque : forall dbg hp ho hd s rem u, usv_list s ->
  parse_scheme CUrlParser (input_new_trim_c0 s) = Some (s_data, rem) -> inp_split_prefix_char 47 rem = None ->
  parse_url dbg hp ho hd None None s = POk u ->
  (forall h B, find_comma_before_fragment (utf8_encode rem) = Ok (Some (h, B)) ->
               k17_query_space (filter C02_Enc.not_tnl h) = false /\ k17_split_escape B = false) ->
  fetch_view (process_and_decode s) = fetch_of_url u.
Proof. exact opaque_is_fetch. Qed.
Print Assumptions C17_opaque.

(* K2 and K3 read on the UTF-8 bytes are K2 and K3 read on the code points *)
Theorem C17_known_utf8 : forall X, usv_list X ->
  k17_query_space (utf8_encode X) = k17_query_space X /\ k17_split_escape (utf8_encode X) = k17_split_escape X.
Proof. exact (fun X H => conj (query_space_utf8 X H) (split_escape_utf8 X H)). Qed.
Print Assumptions C17_known_utf8.

(* C17 outside Known_C17: C17_statement with the premise "url_is_data u" replaced by "parse_scheme
   reads the scheme data from the trimmed input" (the URL parser's own first step).  MIME type record,
   body, fragment and failure agree for EVERY such input outside the computable class Known_C17. *)
Theorem C17_partial2 : forall dbg hp ho hd s rem u, usv_list s ->
  parse_scheme CUrlParser (input_new_trim_c0 s) = Some (s_data, rem) ->
  parse_url dbg hp ho hd None None s = POk u ->
  ~ Known_C17 s ->
  fetch_view (process_and_decode s) = fetch_of_url u.
Proof. exact outside_known_is_fetch. Qed.
Check C17_partial2 : forall dbg hp ho hd s rem u, usv_list s ->
  parse_scheme CUrlParser (input_new_trim_c0 s) = Some (s_data, rem) ->
  parse_url dbg hp ho hd None None s = POk u ->
  ~ Known_C17 s ->
  fetch_view (process_and_decode s) = fetch_of_url u.
Print Assumptions C17_partial2.

(* the one fact about the URL parser model that separates C17_partial2 from C17_statement: the scheme of
   the URL record the parser returns is the scheme text parse_scheme read.  C17_modulo_scheme states
   C17_statement under that fact as a hypothesis; the hypothesis holds
   (Proofs.C17_Final.scheme_of_parse_holds, from C17_scheme below), and Theorem C17 has no hypothesis. *)
Theorem C17_modulo_scheme :
  (forall (dbg : bool) (hp ho : list N -> result host) (hd : host -> list N) (s sch rem : list N) (u : url),
     usv_list s -> parse_scheme CUrlParser (input_new_trim_c0 s) = Some (sch, rem) ->
     parse_url dbg hp ho hd None None s = POk u -> url_is_data u = true -> sch = s_data)
  -> C17_statement.
Proof. exact statement_modulo_scheme. Qed.
Print Assumptions C17_modulo_scheme.

(* parse_url without a base: the scheme slice of the record is what parse_scheme read.  The reason is in
   Proofs/C16_Colons.v (parse_with_scheme_result): every later step of the parser only appends to the
   serialization or truncates / splices it behind "scheme:"; Proofs/C17_Scheme.v reads the slice off it. *)
Theorem C17_scheme : forall dbg hp ho hd ovr input sch rem u,
  parse_scheme CUrlParser (input_new_trim_c0 input) = Some (sch, rem) ->
  parse_url dbg hp ho hd ovr None input = POk u ->
  nfirstn (scheme_end u) (ser u) = sch.
Proof. exact parse_url_scheme. Qed.
Print Assumptions C17_scheme.

(* C17, with no hypothesis beyond those of C17_statement *)
Theorem C17 : C17_statement.
Proof. exact c17_statement_holds. Qed.
Check C17 :
  forall (dbg : bool) (hp ho : list N -> result host) (hd : host -> list N) (s : list N) (u : url),
    usv_list s ->
    parse_url dbg hp ho hd None None s = POk u -> url_is_data u = true ->
    ~ Known_C17 s ->
    fetch_view (process_and_decode s) = fetch_of_url u.
Print Assumptions C17.

(* the premises of C17 / C17_partial2 hold for "data:a/b;p=q?x%20;base64,QUJD#z" (a header with '?', base64),
   and the Fetch side is a non-trivial result (C17_nonvacuous below computes both sides, for another input) *)
Example C17_partial2_premises :
  let s := [100;97;116;97;58;97;47;98;59;112;61;113;63;120;37;50;48;59;98;97;115;101;54;52;44;81;85;74;68;35;122] in
  exists rem u, usv_list s
    /\ parse_scheme CUrlParser (input_new_trim_c0 s) = Some (s_data, rem)
    /\ parse_url true toy_hp toy_hp toy_hd None None s = POk u
    /\ url_is_data u = true /\ known_c17 s = 0
    /\ fetch_of_url u = FOk (mk_mime_type [97] [98] [([112], [113;63;120;37;50;48])]) [65;66;67] (Some [122]).
Proof.
  cbv zeta. eexists. eexists. split; [apply usv_list_b; vm_compute; reflexivity|].
  split; [vm_compute; reflexivity|]. split; [vm_compute; reflexivity|]. split; [vm_compute; reflexivity|].
  split; vm_compute; reflexivity.
Qed.

(* inside Known_C17 the statement fails: one witness per finding (toy host functions; none of the
   witnesses has an authority) *)
Theorem C17_1_refuted : exists s u, usv_list s
  /\ parse_url true toy_hp toy_hp toy_hd None None s = POk u /\ url_is_data u = true
  /\ known_c17 s = 1 /\ fetch_view (process_and_decode s) <> fetch_of_url u.
Proof. exact (ex_intro _ w1 k1_refuted). Qed.
Print Assumptions C17_1_refuted.

Theorem C17_2_refuted : exists s u, usv_list s
  /\ parse_url true toy_hp toy_hp toy_hd None None s = POk u /\ url_is_data u = true
  /\ known_c17 s = 2 /\ fetch_view (process_and_decode s) <> fetch_of_url u.
Proof. exact (ex_intro _ w2 k2_refuted). Qed.
Print Assumptions C17_2_refuted.

Theorem C17_3_refuted : exists s u, usv_list s
  /\ parse_url true toy_hp toy_hp toy_hd None None s = POk u /\ url_is_data u = true
  /\ known_c17 s = 2 /\ fetch_view (process_and_decode s) <> fetch_of_url u.
Proof. exact (ex_intro _ w3 k3_refuted). Qed.
Print Assumptions C17_3_refuted.

Theorem C17_4_refuted : exists s u, usv_list s
  /\ parse_url true toy_hp toy_hp toy_hd None None s = POk u /\ url_is_data u = true
  /\ known_c17 s = 3 /\ fetch_view (process_and_decode s) <> fetch_of_url u.
Proof. exact (ex_intro _ w4 k4_refuted). Qed.
Print Assumptions C17_4_refuted.

(* non-vacuity: an input outside Known_C17 on which both sides agree on a non-trivial result:
   " DATA:Text/HTML;Charset=x;base64,W%20A==#a b" *)
Example C17_nonvacuous :
  let s := [32;68;65;84;65;58;84;101;120;116;47;72;84;77;76;59;67;104;97;114;115;101;116;61;120;59;98;97;115;101;54;52;44;87;37;50;48;65;61;61;35;97;32;98] in
  exists u, parse_url true toy_hp toy_hp toy_hd None None s = POk u /\ url_is_data u = true /\ known_c17 s = 0
    /\ fetch_view (process_and_decode s) = fetch_of_url u
    /\ fetch_of_url u = FOk (mk_mime_type [116;101;120;116] [104;116;109;108] [([99;104;97;114;115;101;116], [120])])
                            [88] (Some [97;37;50;48;98]).
Proof. cbv zeta. eexists. split; [vm_compute; reflexivity|]. vm_compute. repeat split. Qed.
