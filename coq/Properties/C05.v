(* Properties/C05.v - serialization alphabet.  Statements; the lemmas are in Proofs/C05_*.v, and a theorem here is
   closed by `exact` or a short assembly of them (the non-vacuity examples at the end are proved by evaluation).
   ok_byte b = 0x21 <= b <= 0x7E; ok_or_space b = 0x20 <= b <= 0x7E.
   Input text is a list of code points (N); NO range condition is put on it unless stated: whatever
   numbers are fed to the encoders, only '%', upper-case hex digits and unreserved ASCII come out. *)
From RU Require Import Base.Prelude Base.Utf8 Base.Utf8Facts Model.AsciiSet Gen.Tables Model.PercentEncoding
  Model.HostT Model.UrlRecord Model.Parser Model.Setters Model.WF
  Proofs.C14_Set Proofs.C14_Enc Proofs.C14_Views Proofs.ListN
  Proofs.C05_Enc Proofs.C05_Parser Proofs.C05_Setters Proofs.C05_History Proofs.C05_Sharp Proofs.C05_Frag Proofs.C05_Query
  Proofs.C06_WFI Proofs.C06_FragQuery Proofs.C06_HostNone Proofs.C06_Host Proofs.C06_Path Proofs.C06_Main
  Proofs.C05_Comp Proofs.C05_PathClean Proofs.C05_CompSteps Proofs.C05_CompHist
  Proofs.C06_Path Proofs.C06_Segments Proofs.C04_ParseTotal Proofs.C03_ReachParts
  Proofs.C05_ParseUI Proofs.C05_ParseAll Proofs.C05_CompSteps2 Proofs.C05_CompReach Proofs.C05_ParseEx
  Proofs.C03_WF Proofs.C06_Suffix Proofs.C05_BaseOk Proofs.C05_CompSteps3 Proofs.C05_FinEx Proofs.C05_Alphabet
  Proofs.C05_AuthOfs Proofs.C05_AuthParse Proofs.C05_HostText Proofs.C15_Ser Proofs.C05_Qpm Proofs.C05_ReachF Proofs.C05_FinEx2
  Proofs.C05_HostClause Proofs.C05_HostParse Proofs.C05_HostInst
  Proofs.C05_PathSp Proofs.C05_PathSpParse Proofs.C05_PathSpSteps Proofs.C05_ReachFSp.
From RU Require Import Model.Host Proofs.C09_Host.
From RU Require Import Model.FormUrlencoded Model.QueryPairs.


(* a member of the set, other than '%' and the upper-case hex digits, never appears in the output *)
Theorem C05_encoder_avoids : forall S bs c, bytes bs ->
  aset_contains S c = true -> c <> 37 -> is_hexu c = false -> ~ In c (encode S bs).
Proof. exact encode_avoids. Qed.
Check C05_encoder_avoids : forall S bs c, bytes bs ->
  aset_contains S c = true -> c <> 37 -> is_hexu c = false -> ~ In c (encode S bs).
Print Assumptions C05_encoder_avoids.

(* a set covering 0x00-0x20 and 0x7F yields 0x21..0x7E only; covering 0x00-0x1F and 0x7F yields 0x20..0x7E *)
Theorem C05_encoder_range : forall S bs, bytes bs ->
  ((forall b, b < 33 \/ b = 127 -> aset_contains S b = true) -> Forall ok_byte (encode S bs))
  /\ ((forall b, b < 32 \/ b = 127 -> aset_contains S b = true) -> Forall ok_or_space (encode S bs)).
Proof. intros S bs H. split; [exact (encode_ok S bs H) | exact (encode_ok_space S bs H)]. Qed.
Check C05_encoder_range : forall S bs, bytes bs ->
  ((forall b, b < 33 \/ b = 127 -> aset_contains S b = true) -> Forall ok_byte (encode S bs))
  /\ ((forall b, b < 32 \/ b = 127 -> aset_contains S b = true) -> Forall ok_or_space (encode S bs)).
Print Assumptions C05_encoder_range.

(* the same for what the iterator really writes, for ANY list of numbers (no `bytes` condition) *)
Theorem C05_display_alphabet : forall S xs,
  (forall c, aset_contains S c = true -> c <> 37 -> is_hexu c = false -> ~ In c (pe_display S xs))
  /\ ((forall b, b < 33 \/ b = 127 -> aset_contains S b = true) -> Forall ok_byte (pe_display S xs))
  /\ ((forall b, b < 32 \/ b = 127 -> aset_contains S b = true) -> Forall ok_or_space (pe_display S xs)).
Proof.
  intros S xs. split; [|split].
  - intros c. exact (pe_display_avoids S xs c).
  - exact (pe_display_ok S xs).
  - exact (pe_display_ok_space S xs).
Qed.
Check C05_display_alphabet : forall S xs,
  (forall c, aset_contains S c = true -> c <> 37 -> is_hexu c = false -> ~ In c (pe_display S xs))
  /\ ((forall b, b < 33 \/ b = 127 -> aset_contains S b = true) -> Forall ok_byte (pe_display S xs))
  /\ ((forall b, b < 32 \/ b = 127 -> aset_contains S b = true) -> Forall ok_or_space (pe_display S xs)).
Print Assumptions C05_display_alphabet.

(* adds_clean set D (Proofs/C05_Parser.v): for every serialization prefix and every text (ANY code
   points), push_encoded set ser text = ser ++ added with `added` inside 0x21..0x7E and free of D *)
(* / : ; = @ [ \ ] ^ | ? # space dquote < > backtick { } *)
Theorem C05_userinfo_enc :
  adds_clean T_USERINFO [47; 58; 59; 61; 64; 91; 92; 93; 94; 124; 63; 35; 32; 34; 60; 62; 96; 123; 125].
Proof. apply adds_clean_of; [apply T_USERINFO_facts | apply T_USERINFO_facts | reflexivity]. Qed.
Check C05_userinfo_enc :
  adds_clean T_USERINFO [47; 58; 59; 61; 64; 91; 92; 93; 94; 124; 63; 35; 32; 34; 60; 62; 96; 123; 125].
Print Assumptions C05_userinfo_enc.

(* PATH: ? # space dquote < > backtick { } ; PATH_SEGMENT additionally / ; SPECIAL_PATH_SEGMENT additionally \ ;
   both segment sets contain '%', so an input '%' is itself escaped and decoding gives the text back *)
Theorem C05_path_enc :
  adds_clean T_PATH [63; 35; 32; 34; 60; 62; 96; 123; 125]
  /\ adds_clean T_PATH_SEGMENT [47; 63; 35; 32; 34; 60; 62; 96; 123; 125]
  /\ adds_clean T_SPECIAL_PATH_SEGMENT [92; 47; 63; 35; 32; 34; 60; 62; 96; 123; 125]
  /\ aset_contains T_PATH_SEGMENT 37 = true /\ aset_contains T_SPECIAL_PATH_SEGMENT 37 = true
  /\ (forall text, usv_list text ->
        decode (pe_display T_PATH_SEGMENT (utf8_encode text)) = utf8_encode text
        /\ decode (pe_display T_SPECIAL_PATH_SEGMENT (utf8_encode text)) = utf8_encode text).
Proof. exact path_enc_facts. Qed.
Print Assumptions C05_path_enc.

(* QUERY: # space dquote < > ; SPECIAL_QUERY additionally the apostrophe *)
Theorem C05_query_enc :
  adds_clean T_QUERY [35; 32; 34; 60; 62] /\ adds_clean T_SPECIAL_QUERY [39; 35; 32; 34; 60; 62].
Proof.
  split; apply adds_clean_of;
    [apply T_QUERY_facts | apply T_QUERY_facts | reflexivity
     | apply T_SPECIAL_QUERY_facts | apply T_SPECIAL_QUERY_facts | reflexivity].
Qed.
Check C05_query_enc :
  adds_clean T_QUERY [35; 32; 34; 60; 62] /\ adds_clean T_SPECIAL_QUERY [39; 35; 32; 34; 60; 62].
Print Assumptions C05_query_enc.

(* FRAGMENT: space dquote < > backtick *)
Theorem C05_fragment_enc : adds_clean T_FRAGMENT [32; 34; 60; 62; 96].
Proof. apply adds_clean_of; [apply T_FRAGMENT_facts | apply T_FRAGMENT_facts | reflexivity]. Qed.
Check C05_fragment_enc : adds_clean T_FRAGMENT [32; 34; 60; 62; 96].
Print Assumptions C05_fragment_enc.

(* opaque path (CONTROLS): 0x20..0x7E; and for text (code points of a str) the output is that of the C14 map *)
Theorem C05_opaque_enc :
  (forall ser text, exists added,
      push_encoded T_CONTROLS ser text = ser ++ added /\ Forall ok_or_space added)
  /\ (forall set text, usv_list text ->
        pe_display set (utf8_encode text) = encode set (utf8_encode text) /\ ascii (encode set (utf8_encode text))).
Proof.
  split.
  - intros ser text. eexists. split; [reflexivity|]. apply pe_display_ok_space, T_CONTROLS_c0.
  - intros set text Hu. split; [exact (push_text_is_encode set text Hu)|].
    apply encode_ascii, utf8_encode_bytes. exact Hu.
Qed.
Print Assumptions C05_opaque_enc.


(* Hypothesis on the three host functions (Section variables of the parser model):
   HostOK hp hpo hd := every host value h that is HDomain [] or a result Ok h of hp or of hpo
   is displayed by hd inside 0x21..0x7E. *)
Theorem C05_parse : forall dbg hp hpo hd ovr base input u,
  HostOK hp hpo hd ->
  match base with Some b => Forall ok_or_space (ser b) | None => True end ->
  parse_url dbg hp hpo hd ovr base input = POk u ->
  Forall ok_or_space (ser u).
Proof.
  intros dbg hp hpo hd ovr base input u HOK Hb Hp.
  exact (parse_url_okl ok_or_space ok_byte_or_space dbg hp hpo hd ovr HOK base input u
           (fun _ => ok_or_space_32) Hp Hb).
Qed.
Check C05_parse : forall dbg hp hpo hd ovr base input u,
  HostOK hp hpo hd ->
  match base with Some b => Forall ok_or_space (ser b) | None => True end ->
  parse_url dbg hp hpo hd ovr base input = POk u ->
  Forall ok_or_space (ser u).
Print Assumptions C05_parse.

(* the sharper form: U+0020 only with an opaque path.  `sharp u` = every byte in 0x21..0x7E, or
   (every byte in 0x20..0x7E, the bytes up to and including the ':' in 0x21..0x7E, the scheme not
   special, and cannot_be_a_base u = Some true).  Preserved from the base to the result. *)
Theorem C05_bytes : forall dbg hp hpo hd ovr base input u,
  HostOK hp hpo hd -> usv_list input ->
  match base with Some b => sharp b | None => True end ->
  parse_url dbg hp hpo hd ovr base input = POk u ->
  sharp u.
Proof. intros dbg hp hpo hd ovr base input u HOK. exact (parse_url_sharp dbg hp hpo hd ovr HOK base input u). Qed.
Check C05_bytes : forall dbg hp hpo hd ovr base input u,
  HostOK hp hpo hd -> usv_list input ->
  match base with Some b => sharp b | None => True end ->
  parse_url dbg hp hpo hd ovr base input = POk u ->
  sharp u.
Print Assumptions C05_bytes.

(* a component clause for the STORED slice: the fragment of every parse result (no hypothesis on the
   host functions, on the base - its fragment is never kept - or on the input) and of every
   set_fragment(Some _) result is inside 0x21..0x7E and free of space, dquote, '<', '>', backtick *)
Theorem C05_fragment : forall dbg dbg' hp hpo hd ovr base input u f,
  parse_url dbg hp hpo hd ovr base input = POk u -> fragment dbg' u = Some (Some f) ->
  Forall ok_byte f /\ forall d, In d [32; 34; 60; 62; 96] -> ~ In d f.
Proof.
  intros dbg dbg' hp hpo hd ovr base input u f Hp Hf.
  exact (frag_oku_fragment dbg' u f (parse_url_frag dbg hp hpo hd ovr base input u Hp) Hf).
Qed.
Check C05_fragment : forall dbg dbg' hp hpo hd ovr base input u f,
  parse_url dbg hp hpo hd ovr base input = POk u -> fragment dbg' u = Some (Some f) ->
  Forall ok_byte f /\ forall d, In d [32; 34; 60; 62; 96] -> ~ In d f.
Print Assumptions C05_fragment.

Theorem C05_set_fragment : forall dbg dbg' u input u' f,
  set_fragment dbg u (Some input) = Some u' -> fragment dbg' u' = Some (Some f) ->
  Forall ok_byte f /\ forall d, In d [32; 34; 60; 62; 96] -> ~ In d f.
Proof.
  intros dbg dbg' u input u' f Hs Hf.
  exact (frag_oku_fragment dbg' u' f (set_fragment_frag dbg u input u' Hs) Hf).
Qed.
Check C05_set_fragment : forall dbg dbg' u input u' f,
  set_fragment dbg u (Some input) = Some u' -> fragment dbg' u' = Some (Some f) ->
  Forall ok_byte f /\ forall d, In d [32; 34; 60; 62; 96] -> ~ In d f.
Print Assumptions C05_set_fragment.

(* the same for the stored query.  query_oku u (Proofs/C05_Query.v): if query_start u = Some q then
   ser u = X ++ "?" ++ tq ++ rest with q = |X|, tq inside 0x21..0x7E and free of '#', space, dquote,
   '<', '>', and rest = [] (no fragment) or fragment_start u = |X| + 1 + |tq|.  A base must have that
   shape (its query is kept by an empty or fragment-only reference); the result has it again, so the
   statement chains along joins.  Any encoding override, any input, no hypothesis on the host functions. *)
Theorem C05_query : forall dbg dbg' hp hpo hd ovr base input u,
  match base with Some b => query_oku b | None => True end ->
  parse_url dbg hp hpo hd ovr base input = POk u ->
  query_oku u
  /\ forall q, query dbg' u = Some (Some q) -> Forall ok_byte q /\ forall d, In d [35; 32; 34; 60; 62] -> ~ In d q.
Proof.
  intros dbg dbg' hp hpo hd ovr base input u Hb Hp.
  pose proof (parse_url_query dbg hp hpo hd ovr base input u Hb Hp) as H.
  split; [exact H | intros q Hq; exact (query_oku_query dbg' u q H Hq)].
Qed.
Check C05_query : forall dbg dbg' hp hpo hd ovr base input u,
  match base with Some b => query_oku b | None => True end ->
  parse_url dbg hp hpo hd ovr base input = POk u ->
  query_oku u
  /\ forall q, query dbg' u = Some (Some q) -> Forall ok_byte q /\ forall d, In d [35; 32; 34; 60; 62] -> ~ In d q.
Print Assumptions C05_query.

(* Reachable dbg hp hpo hd : parse without base, parse against a reachable base (any encoding
   override), and any of 19 mutators (9 Url setters, path_segments_mut sessions, 9 quirks setters) with
   arbitrary arguments applied to a reachable Url.  IpOK hd : IPv4/IPv6 values print inside 0x21..0x7E. *)
Theorem C05_history : forall dbg hp hpo hd u,
  HostOK hp hpo hd -> IpOK hd ->
  Reachable dbg hp hpo hd u -> Forall ok_or_space (ser u).
Proof.
  intros dbg hp hpo hd u HOK HIP Hr.
  exact (reachable_okl dbg hp hpo hd ok_or_space ok_byte_or_space ok_or_space_32 HOK HIP u Hr).
Qed.
Check C05_history : forall dbg hp hpo hd u,
  HostOK hp hpo hd -> IpOK hd ->
  Reachable dbg hp hpo hd u -> Forall ok_or_space (ser u).
Print Assumptions C05_history.

(* The two statements below are for EVERY reachable Url (Reachable contains every mutator with arbitrary
   arguments, hence also the records the known defects F-C02-2/-3/-4/-8, F-C03-5 produce).  For rust-url
   before commit 0cfc9d8 both are FALSE (finding F-C06-6, confirmed on the crate: Url::parse("a:b") then
   set_path("<TAB>/ y") gave "a:/ y" - not cannot-be-a-base, path "/ y").  Since commit 0cfc9d8 set_path
   tests for the leading '/' on the TAB / LF / CR-free input, and the model follows it: the history of the
   witness ends in an opaque path (C05_F_C06_6_fixed).  For rust-url since that commit no counter-witness is
   known (a search over histories on the crate found none).  The two statements are neither proved nor
   refuted in this development: what is proved is the form for histories of gated steps (C05_components_reachF,
   C05_history_sharp_partial2 below: CReachF in the place of Reachable). *)
Definition C05_history_sharp_statement : Prop :=
  forall dbg hp hpo hd u, HostOK hp hpo hd -> IpOK hd -> Reachable dbg hp hpo hd u -> sharp u.

Definition C05_components_statement : Prop :=
  forall dbg hp hpo hd u, HostOK hp hpo hd -> IpOK hd -> Reachable dbg hp hpo hd u ->
  (forall un, username dbg u = Some un ->
     forall d, In d [47; 58; 59; 61; 64; 91; 92; 93; 94; 124; 63; 35; 32; 34; 60; 62; 96; 123; 125] -> ~ In d un)
  /\ (forall pw, password dbg u = Some (Some pw) ->
     forall d, In d [47; 58; 59; 61; 64; 91; 92; 93; 94; 124; 63; 35; 32; 34; 60; 62; 96; 123; 125] -> ~ In d pw)
  /\ (cannot_be_a_base u = Some false -> forall p, path u = Some p ->
     forall d, In d [63; 35; 32; 34; 60; 62; 96; 123; 125] -> ~ In d p)
  /\ (forall q, query dbg u = Some (Some q) -> forall d, In d [35; 32; 34; 60; 62] -> ~ In d q)
  /\ (forall f, fragment dbg u = Some (Some f) -> forall d, In d [32; 34; 60; 62; 96] -> ~ In d f).

(* regression for F-C06-6: parse "a:b", set_path [TAB; '/'; ' '; 'y'] is reachable and gives "a:%2F y":
   well-formed, still cannot-be-a-base, and `sharp` (the space is inside an opaque path) *)
Theorem C05_F_C06_6_fixed : forall dbg,
  Reachable dbg no_hp no_hp no_hd cw_end
  /\ ser cw_end = [97; 58; 37; 50; 70; 32; 121]
  /\ wf_b cw_end = true /\ cannot_be_a_base cw_end = Some true /\ sharp cw_end.
Proof.
  intros dbg. destruct cw_fixed as (_ & W & _ & C & _ & S).
  split; [apply cw_reachable|]. split; [reflexivity|]. split; [exact W|]. split; [exact C | exact S].
Qed.
Check C05_F_C06_6_fixed : forall dbg,
  Reachable dbg no_hp no_hp no_hd cw_end
  /\ ser cw_end = [97; 58; 37; 50; 70; 32; 121]
  /\ wf_b cw_end = true /\ cannot_be_a_base cw_end = Some true /\ sharp cw_end.
Print Assumptions C05_F_C06_6_fixed.

(* What IS proved.  The hierarchical path states (parse_path_start and everything below it: segments,
   dot segments, drive letters, the file fix-up) in EVERY context - URL parser, Url::set_path,
   path_segments_mut - and for ANY input numbers keep the text in front of the path and write no byte of
   ? # space dquote < > backtick { } *)
Theorem C05_path_states : forall dbg ctx st hh s0 l s1 hh' rem,
  parse_path_start dbg ctx st hh s0 l = POk (s1, hh', rem) ->
  exists P, s1 = s0 ++ P /\ forall d, In d [63; 35; 32; 34; 60; 62; 96; 123; 125] -> ~ In d P.
Proof.
  intros dbg ctx st hh s0 l s1 hh' rem H.
  destruct (parse_path_start_clean dbg ctx st hh s0 l s1 hh' rem H) as (P & E & HP).
  exists P. split; [exact E | exact (pq_free P HP)].
Qed.
Check C05_path_states : forall dbg ctx st hh s0 l s1 hh' rem,
  parse_path_start dbg ctx st hh s0 l = POk (s1, hh', rem) ->
  exists P, s1 = s0 ++ P /\ forall d, In d [63; 35; 32; 34; 60; 62; 96; 123; 125] -> ~ In d P.
Print Assumptions C05_path_states.

(* The clauses as an invariant.  components_clean dbg u = the five clauses of the statement above for the
   record u.  CInv dbg u = wfh u (C06's invariant: wf_b + host_text_ok) /\ comp_ok dbg u, where comp_ok is
   components_clean with the path clause in the form "a stored path that starts with '/' is free of
   ? # space dquote < > backtick { }" (on a well-formed record this gives the clause of the text:
   a path that is not opaque is empty or starts with '/').
   step_gate hd u o u' (Proofs/C05_CompHist.v) excludes, by computable conditions on the two records and
   the argument, exactly the known classes: set_host(None) with an empty path or a "//"-led path
   (F-C06-5, F-C02-2), host setters on a marker URL or an empty new host over a stored port (F-C03-5,
   F-C02-4), set_path with '?' / '#' into an opaque path (F-C02-3), a "//"-led result without marker or a
   marker in front of a path that is not "//"-led (F-C02-8, F-C03-5); arguments are &str (usv_list) and
   u16.  set_path on an opaque path needs no further exclusion (since the fix of F-C06-6 the path stays
   opaque, C06_get_path_opaque).  NOT covered by this theorem (gate False): path_segments_mut sessions and the
   quirks setters set_host / set_hostname / set_port / set_pathname - see C05_components_step2 below. *)
Theorem C05_components_step : forall dbg hp hpo hd u o u',
  CInv dbg u -> step_gate hd u o u' -> apply_op dbg hp hpo hd u o = Some u' ->
  CInv dbg u' /\ components_clean dbg u'.
Proof.
  intros dbg hp hpo hd u o u' K G H. pose proof (cinv_step dbg hp hpo hd u o u' K G H) as K'.
  split; [exact K'|]. destruct K' as [[W _] C]. exact (comp_ok_components dbg u' W C).
Qed.
Check C05_components_step : forall dbg hp hpo hd u o u',
  CInv dbg u -> step_gate hd u o u' -> apply_op dbg hp hpo hd u o = Some u' ->
  CInv dbg u' /\ components_clean dbg u'.
Print Assumptions C05_components_step.

(* along every history of gated steps (GHist: reflexive-transitive closure of gated apply_op steps) *)
Theorem C05_components_history : forall dbg hp hpo hd u u',
  GHist dbg hp hpo hd u u' -> CInv dbg u -> wfh u' /\ components_clean dbg u'.
Proof. exact components_history. Qed.
Check C05_components_history : forall dbg hp hpo hd u u',
  GHist dbg hp hpo hd u u' -> CInv dbg u -> wfh u' /\ components_clean dbg u'.
Print Assumptions C05_components_history.

(* a start class with a computable recogniser: every parse result (no base, any encoding override, no
   hypothesis on the host functions) of an input  scheme ":" rest  with a non-special scheme and rest not
   starting with '/' (C02's opaque-input class) satisfies CInv *)
Theorem C05_components_parse_opaque : forall dbg hp hpo hd ovr input u,
  usv_list input -> opaque_start input = true ->
  parse_url dbg hp hpo hd ovr None input = POk u -> CInv dbg u /\ cannot_be_a_base u = Some true.
Proof. exact parse_opaque_cinv. Qed.
Check C05_components_parse_opaque : forall dbg hp hpo hd ovr input u,
  usv_list input -> opaque_start input = true ->
  parse_url dbg hp hpo hd ovr None input = POk u -> CInv dbg u /\ cannot_be_a_base u = Some true.
Print Assumptions C05_components_parse_opaque.

(* The statement for EVERY parse result with HostOK (host display inside 0x21..0x7E) as the only hypothesis on the
   host functions and CInv as the only hypothesis on the base. *)
Definition C05_components_parse_statement : Prop :=
  forall dbg hp hpo hd ovr base input u, HostOK hp hpo hd ->
    match base with Some b => CInv dbg b | None => True end ->
    parse_url dbg hp hpo hd ovr base input = POk u -> CInv dbg u.

(* In that form it is FALSE of the model - not a defect of the crate: a Display for Host that prints ":" for a
   domain satisfies HostOK, and with it "a://x" gives the record "a://:" which is not well-formed (the witness
   of C03_reachability_statement_refuted; url::Host never prints such a text).  CInv contains wf_b, so the
   statement needs C03's hypothesis HostWf (non-empty host text that does not start with ':' / '@' and does
   not end with '/'; C09_host_model_ok discharges it for the host model) and C03's base_ok for the base. *)
Theorem C05_components_parse_statement_refuted : ~ C05_components_parse_statement.
Proof.
  intros H. destruct parse_statement_witness as (u & Hp & Hn). apply Hn.
  exact (H true _ _ _ None None _ u bad_host_ok I Hp).
Qed.
Check C05_components_parse_statement_refuted : ~ C05_components_parse_statement.
Print Assumptions C05_components_parse_statement_refuted.

(* the userinfo state (any input numbers): what parse_userinfo leaves behind "scheme://" is nothing, "un@" or
   "un:pw@" with un and pw free of / : ; = @ [ \ ] ^ | ? # space dquote < > backtick { }, and username_end
   points behind un *)
Theorem C05_userinfo_state : forall st ser0 l ser1 ue rem,
  parse_userinfo st ser0 l = POk (ser1, ue, rem) ->
  exists un t, free D_USERINFO un /\ ue = nlen ser0 + nlen un /\ ser1 = ser0 ++ un ++ t
    /\ (t = [] \/ t = [64] \/ exists pw, free D_USERINFO pw /\ t = [58] ++ pw ++ [64]).
Proof. exact parse_userinfo_ui. Qed.
Check C05_userinfo_state : forall st ser0 l ser1 ue rem,
  parse_userinfo st ser0 l = POk (ser1, ue, rem) ->
  exists un t, free D_USERINFO un /\ ue = nlen ser0 + nlen un /\ ser1 = ser0 ++ un ++ t
    /\ (t = [] \/ t = [64] \/ exists pw, free D_USERINFO pw /\ t = [58] ++ pw ++ [64]).
Print Assumptions C05_userinfo_state.

(* CInv - hence all five clauses of the property text on the STORED slices - for EVERY record parse_url returns:
   every scheme (file and drive letters included), with or without a base (absolute URLs and relative references
   of every kind), ANY input numbers (no scalar-value condition), any encoding override, both build
   configurations; the getters may be read with either build configuration (dbg').  Hypotheses: HostWf on the
   host functions (needed for wf_b only - the clauses do not look at the host text) and, for a base,
   CInv /\ base_ok (base_ok b = wf_b b, and a base with a special scheme is not cannot-be-a-base). *)
Theorem C05_components_parse : forall dbg dbg' hp hpo hd ovr base input u, HostWf hp hpo hd ->
  match base with Some b => CInv dbg' b /\ base_ok b = true | None => True end ->
  parse_url dbg hp hpo hd ovr base input = POk u -> CInv dbg' u /\ components_clean dbg' u.
Proof.
  intros dbg dbg' hp hpo hd ovr base input u HW Hb Hp.
  pose proof (parse_url_cinv dbg dbg' hp hpo hd ovr base input u HW Hb Hp) as K.
  split; [exact K|]. destruct K as [[W _] C]. exact (comp_ok_components dbg' u W C).
Qed.
Check C05_components_parse : forall dbg dbg' hp hpo hd ovr base input u, HostWf hp hpo hd ->
  match base with Some b => CInv dbg' b /\ base_ok b = true | None => True end ->
  parse_url dbg hp hpo hd ovr base input = POk u -> CInv dbg' u /\ components_clean dbg' u.
Print Assumptions C05_components_parse.

(* the userinfo and path clauses alone need no hypothesis on the host functions at all.  up_ok u
   (Proofs/C05_ParseUI.v): the slices [scheme_end+3, username_end) and [username_end+1, host_start-1) of the
   serialization are free of the userinfo delimiters and a stored path that starts with '/' is free of
   ? # space dquote < > backtick { };  base_c b = base_ok b /\ up_ok b. *)
Theorem C05_userinfo_path_parse : forall dbg hp hpo hd ovr base input u,
  match base with Some b => base_c b | None => True end ->
  parse_url dbg hp hpo hd ovr base input = POk u -> up_ok u.
Proof. exact parse_url_up. Qed.
Check C05_userinfo_path_parse : forall dbg hp hpo hd ovr base input u,
  match base with Some b => base_c b | None => True end ->
  parse_url dbg hp hpo hd ovr base input = POk u -> up_ok u.
Print Assumptions C05_userinfo_path_parse.

(* All 19 mutators.  step_gate2 hp hpo hd u o u' (Proofs/C05_CompReach.v) = step_gate, and for the steps
   step_gate leaves out:
     path_segments_mut session : the pushed segments are &str and path_gate (F-C02-8 / F-C03-5) holds;
     quirks set_pathname       : the value is a &str, auth_end_ok and path_gate;
     quirks set_port           : no condition (it is Url::set_port with the parsed number);
     quirks set_hostname, Url::set_host(Some _) : host_gate = outside F-C03-5 (marker) and F-C02-4 (empty new
                                 host over a stored port) - in the place of the hypothesis "forall h, host_disp_ok hd h"
                                 of C05_components_step, which quantifies over model values that no url::Host has,
                                 stands HostWf (hosts the parser returns);
     quirks set_host           : host_gate and q_host_keeps_port (the value has no ':' part that parses as a
                                 port).  Quirks set_host with a port part is outside step_gate2; step_gate3
                                 (C05_components_step3 below) admits it. *)
Theorem C05_components_step2 : forall dbg hp hpo hd u o u', HostWf hp hpo hd ->
  CInv dbg u -> step_gate2 hp hpo hd u o u' -> apply_op dbg hp hpo hd u o = Some u' ->
  CInv dbg u' /\ components_clean dbg u'.
Proof.
  intros dbg hp hpo hd u o u' HW K G H. pose proof (cinv_step2 dbg hp hpo hd HW u o u' K G H) as K'.
  split; [exact K'|]. destruct K' as [[W _] C]. exact (comp_ok_components dbg u' W C).
Qed.
Check C05_components_step2 : forall dbg hp hpo hd u o u', HostWf hp hpo hd ->
  CInv dbg u -> step_gate2 hp hpo hd u o u' -> apply_op dbg hp hpo hd u o = Some u' ->
  CInv dbg u' /\ components_clean dbg u'.
Print Assumptions C05_components_step2.

(* Every record reachable by parse, join and gated steps.  CReach dbg hp hpo hd (Proofs/C05_CompReach.v):
   parse without base; parse against a reached base b with base_ok b = true; a step of any of the 19 mutators
   with op_valid and step_gate2.  It is a subset of Reachable (C05_reach_sub).  This is the property text of C05
   for the component clauses on all histories outside the explicit known classes (C05_components_reachF below
   is the same for the larger relation CReachF).  The unrestricted statements C05_components_statement /
   C05_history_sharp_statement above are neither proved nor refuted: no counter-witness is known for rust-url
   since commit 0cfc9d8, but the invariant needs wf_b, which the records of the unfixed defects
   (F-C02-2/-3/-4/-8, F-C03-5, F-C06-5) need not satisfy. *)
Theorem C05_components_reach : forall dbg hp hpo hd u, HostWf hp hpo hd ->
  CReach dbg hp hpo hd u -> wfh u /\ components_clean dbg u.
Proof. intros dbg hp hpo hd u HW. exact (creach_components dbg hp hpo hd HW u). Qed.
Check C05_components_reach : forall dbg hp hpo hd u, HostWf hp hpo hd ->
  CReach dbg hp hpo hd u -> wfh u /\ components_clean dbg u.
Print Assumptions C05_components_reach.

Theorem C05_reach_sub : forall dbg hp hpo hd u, CReach dbg hp hpo hd u -> Reachable dbg hp hpo hd u.
Proof. exact creach_reachable. Qed.
Check C05_reach_sub : forall dbg hp hpo hd u, CReach dbg hp hpo hd u -> Reachable dbg hp hpo hd u.
Print Assumptions C05_reach_sub.

(* the hypotheses are met: (Proofs/C05_ParseEx.v) with the host model of C02's examples, which satisfies HostWf,
   "http://u s:p@h.x/a/b?q" parses to a base with CInv and base_ok, and joining "../c d?r" gives
   "http://u%20s:p@h.x/c%20d?r" with CInv and base_ok again;
   and: parse "http://h.x/a/b?q"; path_segments_mut pop, push "c d"; quirks set_pathname "/x y<z";
   quirks set_hostname "o.x"; quirks set_port "81"; join "../w v#f`" - every gate holds and the result is
   "http://o.x:81/w%20v#f%60" *)
Example C05_components_parse_inhabited : parse_cinv_example_stmt.
Proof. exact parse_cinv_example. Qed.
Example C05_components_reach_inhabited : creach_example_stmt.
Proof. exact creach_example. Qed.

(* Every parse result is again a possible base.  base_ok u (Proofs/C04_ParseTotal.v) = wf_b u, and a special
   scheme is followed by ":/" (the record is not cannot-be-a-base).  The second half needs no hypothesis on the host
   functions and none on the input: bk u := st_is_special (scheme_type_of (b_scheme u)) = true ->
   nnth (ser u) (scheme_end u + 1) = Some 47, from a base that is well formed and satisfies bk. *)
Theorem C05_parse_special_slash : forall dbg hp hpo hd ovr base input u,
  match base with Some b => wf_b b = true /\ bk b | None => True end ->
  parse_url dbg hp hpo hd ovr base input = POk u -> bk u.
Proof. exact parse_url_bk. Qed.
Check C05_parse_special_slash : forall dbg hp hpo hd ovr base input u,
  match base with Some b => wf_b b = true /\ bk b | None => True end ->
  parse_url dbg hp hpo hd ovr base input = POk u -> bk u.
Print Assumptions C05_parse_special_slash.

(* with C03's parse_url_wf_all: the premises `base_ok b /\ host_text_ok b` of C03_parse_reachability, of
   C05_components_parse and of C04's no-panic theorem for a base reproduce themselves on the result, so along chains
   of parse and join they are needed for no link (C05_parse_join_chain below) *)
Theorem C05_parse_base_ok : forall dbg hp hpo hd ovr base input u, HostWf hp hpo hd ->
  match base with Some b => base_ok b = true /\ host_text_ok b | None => True end ->
  parse_url dbg hp hpo hd ovr base input = POk u -> base_ok u = true /\ host_text_ok u.
Proof. exact parse_url_base_ok. Qed.
Check C05_parse_base_ok : forall dbg hp hpo hd ovr base input u, HostWf hp hpo hd ->
  match base with Some b => base_ok b = true /\ host_text_ok b | None => True end ->
  parse_url dbg hp hpo hd ovr base input = POk u -> base_ok u = true /\ host_text_ok u.
Print Assumptions C05_parse_base_ok.

(* PJ dbg hp hpo hd (Proofs/C05_CompSteps3.v): parse without base, and parse against ANY record of PJ - no premise
   on the base.  Every such record is a possible base and satisfies wfh and the five clauses. *)
Theorem C05_parse_join_chain : forall dbg hp hpo hd u, HostWf hp hpo hd -> PJ dbg hp hpo hd u ->
  base_ok u = true /\ wfh u /\ components_clean dbg u.
Proof.
  intros dbg hp hpo hd u HW R. split; [exact (proj1 (pj_base_ok dbg hp hpo hd HW u R))|].
  apply (creach3_components_pj dbg hp hpo hd HW u R).
Qed.
Check C05_parse_join_chain : forall dbg hp hpo hd u, HostWf hp hpo hd -> PJ dbg hp hpo hd u ->
  base_ok u = true /\ wfh u /\ components_clean dbg u.
Print Assumptions C05_parse_join_chain.

(* All 19 mutators, each with a gate other than False.  step_gate3 hp hpo hd u o u' (Proofs/C05_CompSteps3.v) =
   step_gate2 with
     quirks set_host   : host_gate alone (outside F-C03-5 / F-C02-4) - a ':port' part in the value is covered
                         (C06_Quirks.set_host_internal_port_post is the frame for set_host_internal with a new port);
     Url::set_ip_host  : the argument is an address value (ip_arg: Ipv4Addr = u32, Ipv6Addr = eight u16) and the URL is
                         outside F-C03-5; in the place of the hypothesis host_disp_ok hd h of step_gate on the argument stands
                         the hypothesis IpDisp hd on the Display function (addresses print as a non-empty text that does
                         not start with ':' / '@'; C09_inst_HostWf discharges it for the host model), and F-C02-4 cannot
                         occur (an address is never the empty host). *)
Theorem C05_components_step3 : forall dbg hp hpo hd u o u', HostWf hp hpo hd -> IpDisp hd ->
  CInv dbg u -> step_gate3 hp hpo hd u o u' -> apply_op dbg hp hpo hd u o = Some u' ->
  CInv dbg u' /\ components_clean dbg u'.
Proof.
  intros dbg hp hpo hd u o u' HW HI K G H. pose proof (cinv_step3 dbg hp hpo hd HW u o u' HI K G H) as K'.
  split; [exact K'|]. destruct K' as [[W _] C]. exact (comp_ok_components dbg u' W C).
Qed.
Check C05_components_step3 : forall dbg hp hpo hd u o u', HostWf hp hpo hd -> IpDisp hd ->
  CInv dbg u -> step_gate3 hp hpo hd u o u' -> apply_op dbg hp hpo hd u o = Some u' ->
  CInv dbg u' /\ components_clean dbg u'.
Print Assumptions C05_components_step3.

(* CReach3 dbg hp hpo hd: parse; parse against a reached base with base_ok (automatically true when the base is
   itself a parse / join result, C05_parse_base_ok; a premise for a base that comes straight out of a mutator - a
   redundant one: every record of CReach3 satisfies base_ok, C05_reach3_sharp); a step_gate3 step of any of the 19
   mutators.  A subset of Reachable (C05_reach3_sub). *)
Theorem C05_components_reach3 : forall dbg hp hpo hd u, HostWf hp hpo hd -> IpDisp hd ->
  CReach3 dbg hp hpo hd u -> wfh u /\ components_clean dbg u.
Proof. intros dbg hp hpo hd u HW HI. exact (creach3_components dbg hp hpo hd HW HI u). Qed.
Check C05_components_reach3 : forall dbg hp hpo hd u, HostWf hp hpo hd -> IpDisp hd ->
  CReach3 dbg hp hpo hd u -> wfh u /\ components_clean dbg u.
Print Assumptions C05_components_reach3.

Theorem C05_reach3_sub : forall dbg hp hpo hd u, CReach3 dbg hp hpo hd u -> Reachable dbg hp hpo hd u.
Proof. exact creach3_sub. Qed.
Check C05_reach3_sub : forall dbg hp hpo hd u, CReach3 dbg hp hpo hd u -> Reachable dbg hp hpo hd u.
Print Assumptions C05_reach3_sub.

(* the hypotheses are met and the steps that step_gate3 adds are taken: (Proofs/C05_FinEx.v) with the host model of C02's examples
   (HostWf, IpDisp): parse "http://h.x/a?q"; quirks set_host "o.x:81"; set_ip_host 1.2.3.4 ... - see fin_example_stmt *)
Example C05_components_reach3_inhabited : fin_example_stmt.
Proof. exact fin_example. Qed.

(* From the component clauses to the alphabet of the WHOLE serialization (first sentence of the property text).
   alphabet_ok u (Proofs/C05_Alphabet.v) := ser u = A ++ pth ++ Z with path u = Some pth, A and Z inside 0x21..0x7E,
   pth inside 0x20..0x7E, and pth inside 0x21..0x7E unless cannot_be_a_base u: U+0020 solely inside an opaque path.
   It holds for every record with CInv whose bytes are inside 0x20..0x7E (C05_history: every reachable record) and
   whose stored host text has no space - the serialization is read as the concatenation of the accessors (C03_concat).
   That the host text of a reached record has no space is true of every parse result (C05_bytes) and is an invariant
   of CReachF (FInv, C05_reachF_invariant); C05_alphabet_reach has it as a premise. *)
Theorem C05_alphabet_of_components : forall dbg u, CInv dbg u -> Forall ok_or_space (ser u) ->
  (has_host u = true -> ~ In 32 (piece u (host_start u) (host_end u))) -> alphabet_ok u.
Proof. exact cinv_alphabet. Qed.
Check C05_alphabet_of_components : forall dbg u, CInv dbg u -> Forall ok_or_space (ser u) ->
  (has_host u = true -> ~ In 32 (piece u (host_start u) (host_end u))) -> alphabet_ok u.
Print Assumptions C05_alphabet_of_components.

(* the first sentence of the property text - only 0x21..0x7E, U+0020 solely inside an opaque path - for every record
   of CReach3 (parse, join, gated steps of all 19 mutators) whose stored host text has no space; IpOKv hd: address
   values print inside 0x21..0x7E.  The condition on the host text of the reached record holds for every parse result
   by C05_bytes and is kept by the mutators - they copy the host text or write the Display of a parsed host / an
   address; it is part of the invariant FInv of CReachF, and C05_reach3_sharp is this theorem without the premise. *)
Theorem C05_alphabet_reach : forall dbg hp hpo hd u, HostWf hp hpo hd -> HostOK hp hpo hd -> IpDisp hd -> IpOKv hd ->
  CReach3 dbg hp hpo hd u ->
  (has_host u = true -> ~ In 32 (piece u (host_start u) (host_end u))) -> alphabet_ok u.
Proof. intros dbg hp hpo hd u HW HOK HI HV. exact (creach3_alphabet dbg hp hpo hd HW HOK HI HV u). Qed.
Check C05_alphabet_reach : forall dbg hp hpo hd u, HostWf hp hpo hd -> HostOK hp hpo hd -> IpDisp hd -> IpOKv hd ->
  CReach3 dbg hp hpo hd u ->
  (has_host u = true -> ~ In 32 (piece u (host_start u) (host_end u))) -> alphabet_ok u.
Print Assumptions C05_alphabet_reach.

(* the hypotheses of C05_alphabet_reach are met (Proofs/C05_FinEx.v): HostOK, IpOKv for the example host functions, and
   the reached record "http://1.2.3.4:81/w%20v" of C05_components_reach3_inhabited has a space-free host text *)
Example C05_alphabet_reach_inhabited : fin_alphabet_stmt.
Proof. exact fin_alphabet. Qed.

(* the reachability relation CReachF: no premise on joins, query_pairs_mut included *)
(* AS u (Proofs/C05_AuthOfs.v) := a special scheme is followed by "://" (scheme_end + 3 <= username_end; on a well-formed
   record: has_authority).  It holds for EVERY record parse_url returns - any input numbers, any override, NO hypothesis
   on the host functions - from a base that is well formed and satisfies AS.  With wf_b it gives base_ok (as_base_ok),
   i.e. the premise of the join steps of CReach / CReach3. *)
Theorem C05_special_authority_parse : forall dbg hp hpo hd ovr base input u,
  match base with Some b => wf_b b = true /\ AS b | None => True end ->
  parse_url dbg hp hpo hd ovr base input = POk u -> AS u.
Proof. exact parse_url_as. Qed.
Check C05_special_authority_parse : forall dbg hp hpo hd ovr base input u,
  match base with Some b => wf_b b = true /\ AS b | None => True end ->
  parse_url dbg hp hpo hd ovr base input = POk u -> AS u.
Print Assumptions C05_special_authority_parse.

(* ... and it is kept by every one of the 19 mutators with arbitrary arguments - no gate, no well-formedness: only the
   offsets are followed.  The one mutator that removes "//" is set_host(None), and only when the scheme is not special
   (second alternative; "file" keeps "file://"). *)
Theorem C05_special_authority_step : forall dbg hp hpo hd u o u',
  apply_op dbg hp hpo hd u o = Some u' -> AO u ->
  AO u' \/ exists sty, u_scheme_type u = Some sty /\ st_is_special sty = false.
Proof. exact apply_op_ao. Qed.
Check C05_special_authority_step : forall dbg hp hpo hd u o u',
  apply_op dbg hp hpo hd u o = Some u' -> AO u ->
  AO u' \/ exists sty, u_scheme_type u = Some sty /\ st_is_special sty = false.
Print Assumptions C05_special_authority_step.

(* what one gated step does to the scheme class and to the stored host text (FR, Proofs/C05_HostText.v):
   new scheme special -> old scheme special; host_str stays, becomes None, or becomes the Display of an address value
   (set_ip_host) or of a host returned by the host parser of the scheme class of the URL (hp for special schemes, hpo
   otherwise) *)
Theorem C05_step_frame : forall dbg hp hpo hd u o u', HostWf hp hpo hd -> IpDisp hd ->
  CInv dbg u -> step_gate3 hp hpo hd u o u' -> apply_op dbg hp hpo hd u o = Some u' -> FR hp hpo hd u u'.
Proof. intros dbg hp hpo hd u o u' HW HI. exact (frame_step3 dbg hp hpo hd HW u o u' HI). Qed.
Check C05_step_frame : forall dbg hp hpo hd u o u', HostWf hp hpo hd -> IpDisp hd ->
  CInv dbg u -> step_gate3 hp hpo hd u o u' -> apply_op dbg hp hpo hd u o = Some u' -> FR hp hpo hd u u'.
Print Assumptions C05_step_frame.

(* the host text of a parse result, for ANY input numbers (C05_bytes needs scalar values for the head of an opaque path;
   the host text does not): the result lies entirely inside 0x21..0x7E or has no host *)
Theorem C05_parse_host_bytes : forall dbg dbg' hp hpo hd ovr base input u, HostOK hp hpo hd ->
  match base with
  | Some b => CInv dbg' b /\ Forall ok_or_space (ser b) /\ bk b /\ HTx (fun s => ~ In 32 s) b
  | None => True
  end ->
  parse_url dbg hp hpo hd ovr base input = POk u -> Forall ok_byte (ser u) \/ hosti u = HI_None.
Proof. intros dbg dbg' hp hpo hd ovr base input u HOK. exact (parse_url_host_bytes dbg hp hpo hd ovr HOK dbg' base input u). Qed.
Check C05_parse_host_bytes : forall dbg dbg' hp hpo hd ovr base input u, HostOK hp hpo hd ->
  match base with
  | Some b => CInv dbg' b /\ Forall ok_or_space (ser b) /\ bk b /\ HTx (fun s => ~ In 32 s) b
  | None => True
  end ->
  parse_url dbg hp hpo hd ovr base input = POk u -> Forall ok_byte (ser u) \/ hosti u = HI_None.
Print Assumptions C05_parse_host_bytes.

(* Url::query_pairs_mut sessions (Model/QueryPairs.v; operations with &str arguments, C15's op_ok): CInv, the byte
   alphabet, the offsets scheme_end / username_end, the scheme and the host text are kept - the new query text consists
   of bytes of the form_urlencoded output alphabet and of bytes of the query of u *)
Theorem C05_query_pairs_step : forall dbg u ops u', CInv dbg u -> Forall ok_or_space (ser u) -> Forall op_ok ops ->
  query_pairs_session dbg u ops = Some u' ->
  CInv dbg u' /\ Forall ok_or_space (ser u') /\ sf u u' /\ scheme u' = scheme u /\ host_str u' = host_str u.
Proof. exact qpm_inv. Qed.
Check C05_query_pairs_step : forall dbg u ops u', CInv dbg u -> Forall ok_or_space (ser u) -> Forall op_ok ops ->
  query_pairs_session dbg u ops = Some u' ->
  CInv dbg u' /\ Forall ok_or_space (ser u') /\ sf u u' /\ scheme u' = scheme u /\ host_str u' = host_str u.
Print Assumptions C05_query_pairs_step.

(* CReachF dbg hp hpo hd (Proofs/C05_ReachF.v): parse; parse against ANY reached record - NO premise on the base; a
   step_gate3 step of any of the 19 mutators; a query_pairs_mut session with &str arguments.  CReach3 is a part of it
   (C05_reach3_in_F); it is a part of ReachableQ = C05's Reachable plus query_pairs_mut sessions (C05_reachF_sub,
   C05_reachable_in_Q).  Hypotheses: only those on the host functions -
     HostWf (C03: parsed hosts print as a non-empty text that does not start with ':' / '@' and does not end with '/'),
     HostOK (parsed hosts print inside 0x21..0x7E), IpDisp / IpOKv (the same two for address values).
   FInv: CInv /\ AS /\ every byte inside 0x20..0x7E /\ the stored host text has no space. *)
Theorem C05_reachF_invariant : forall dbg hp hpo hd u, HostWf hp hpo hd -> HostOK hp hpo hd -> IpDisp hd -> IpOKv hd ->
  CReachF dbg hp hpo hd u -> FInv dbg u.
Proof. intros dbg hp hpo hd u HW HOK HI HV. exact (creachF_inv dbg hp hpo hd HW HOK HI HV u). Qed.
Check C05_reachF_invariant : forall dbg hp hpo hd u, HostWf hp hpo hd -> HostOK hp hpo hd -> IpDisp hd -> IpOKv hd ->
  CReachF dbg hp hpo hd u -> FInv dbg u.
Print Assumptions C05_reachF_invariant.

(* every reached record is a possible base: the premise `base_ok b` of CR_join / CR3_join is an invariant *)
Theorem C05_reachF_base_ok : forall dbg hp hpo hd u, HostWf hp hpo hd -> HostOK hp hpo hd -> IpDisp hd -> IpOKv hd ->
  CReachF dbg hp hpo hd u -> base_ok u = true /\ host_text_ok u.
Proof. intros dbg hp hpo hd u HW HOK HI HV. exact (creachF_base_ok dbg hp hpo hd HW HOK HI HV u). Qed.
Check C05_reachF_base_ok : forall dbg hp hpo hd u, HostWf hp hpo hd -> HostOK hp hpo hd -> IpDisp hd -> IpOKv hd ->
  CReachF dbg hp hpo hd u -> base_ok u = true /\ host_text_ok u.
Print Assumptions C05_reachF_base_ok.

(* the component clauses of the property text *)
Theorem C05_components_reachF : forall dbg hp hpo hd u, HostWf hp hpo hd -> HostOK hp hpo hd -> IpDisp hd -> IpOKv hd ->
  CReachF dbg hp hpo hd u -> wfh u /\ components_clean dbg u.
Proof. intros dbg hp hpo hd u HW HOK HI HV. exact (creachF_components dbg hp hpo hd HW HOK HI HV u). Qed.
Check C05_components_reachF : forall dbg hp hpo hd u, HostWf hp hpo hd -> HostOK hp hpo hd -> IpDisp hd -> IpOKv hd ->
  CReachF dbg hp hpo hd u -> wfh u /\ components_clean dbg u.
Print Assumptions C05_components_reachF.

(* the first sentence of the property text, in both forms: alphabet_ok (ser u = A ++ path ++ Z, A and Z inside 0x21..0x7E,
   the path too unless cannot-be-a-base) and `sharp` (the predicate of C05_bytes / C05_history_sharp_statement).  No
   premise on the reached record is left (C05_alphabet_reach had "the stored host text has no space"). *)
Theorem C05_alphabet_reachF : forall dbg hp hpo hd u, HostWf hp hpo hd -> HostOK hp hpo hd -> IpDisp hd -> IpOKv hd ->
  CReachF dbg hp hpo hd u -> alphabet_ok u.
Proof. intros dbg hp hpo hd u HW HOK HI HV. exact (creachF_alphabet dbg hp hpo hd HW HOK HI HV u). Qed.
Check C05_alphabet_reachF : forall dbg hp hpo hd u, HostWf hp hpo hd -> HostOK hp hpo hd -> IpDisp hd -> IpOKv hd ->
  CReachF dbg hp hpo hd u -> alphabet_ok u.
Print Assumptions C05_alphabet_reachF.

(* C05_history_sharp_statement with CReachF in the place of Reachable (and the two hypotheses HostWf, IpDisp that
   well-formedness needs) *)
Theorem C05_history_sharp_partial2 : forall dbg hp hpo hd u, HostWf hp hpo hd -> HostOK hp hpo hd -> IpDisp hd -> IpOKv hd ->
  CReachF dbg hp hpo hd u -> sharp u.
Proof. intros dbg hp hpo hd u HW HOK HI HV. exact (creachF_sharp dbg hp hpo hd HW HOK HI HV u). Qed.
Check C05_history_sharp_partial2 : forall dbg hp hpo hd u, HostWf hp hpo hd -> HostOK hp hpo hd -> IpDisp hd -> IpOKv hd ->
  CReachF dbg hp hpo hd u -> sharp u.
Print Assumptions C05_history_sharp_partial2.

Theorem C05_reach3_in_F : forall dbg hp hpo hd u, CReach3 dbg hp hpo hd u -> CReachF dbg hp hpo hd u.
Proof. exact creach3_F. Qed.
Check C05_reach3_in_F : forall dbg hp hpo hd u, CReach3 dbg hp hpo hd u -> CReachF dbg hp hpo hd u.
Print Assumptions C05_reach3_in_F.

(* the same for CReach3 itself: the premise `base_ok b` of CR3_join is redundant (every record of CReach3 satisfies it),
   and C05_alphabet_reach holds without its premise on the host text, in the `sharp` form *)
Theorem C05_reach3_sharp : forall dbg hp hpo hd u, HostWf hp hpo hd -> HostOK hp hpo hd -> IpDisp hd -> IpOKv hd ->
  CReach3 dbg hp hpo hd u -> base_ok u = true /\ alphabet_ok u /\ sharp u.
Proof.
  intros dbg hp hpo hd u HW HOK HI HV R. pose proof (creach3_F dbg hp hpo hd u R) as RF.
  split; [exact (proj1 (creachF_base_ok dbg hp hpo hd HW HOK HI HV u RF))|].
  split; [exact (creachF_alphabet dbg hp hpo hd HW HOK HI HV u RF) | exact (creachF_sharp dbg hp hpo hd HW HOK HI HV u RF)].
Qed.
Check C05_reach3_sharp : forall dbg hp hpo hd u, HostWf hp hpo hd -> HostOK hp hpo hd -> IpDisp hd -> IpOKv hd ->
  CReach3 dbg hp hpo hd u -> base_ok u = true /\ alphabet_ok u /\ sharp u.
Print Assumptions C05_reach3_sharp.

Theorem C05_reachF_sub : forall dbg hp hpo hd u, CReachF dbg hp hpo hd u -> ReachableQ dbg hp hpo hd u.
Proof. exact creachF_Q. Qed.
Check C05_reachF_sub : forall dbg hp hpo hd u, CReachF dbg hp hpo hd u -> ReachableQ dbg hp hpo hd u.
Print Assumptions C05_reachF_sub.

Theorem C05_reachable_in_Q : forall dbg hp hpo hd u, Reachable dbg hp hpo hd u -> ReachableQ dbg hp hpo hd u.
Proof. exact reachable_Q. Qed.
Check C05_reachable_in_Q : forall dbg hp hpo hd u, Reachable dbg hp hpo hd u -> ReachableQ dbg hp hpo hd u.
Print Assumptions C05_reachable_in_Q.

(* the hypotheses are met, and a query_pairs_mut session and a join against a mutator result are taken
   (Proofs/C05_FinEx2.v): parse "http://h.x/a?q"; quirks set_host
   "o.x:81"; query_pairs_mut().append_pair("k'", "v w~"); join "../w v#f`" against the result (a base that comes straight
   out of mutator steps) gives "http://o.x:81/w%20v#f%60", with alphabet_ok and sharp *)
Example C05_reachF_inhabited : finF_example_stmt.
Proof. exact finF_example. Qed.

(* the host clause (last sentence of the property text) *)
(* where the host text of a parse result comes from (Proofs/C05_HostParse.v), every parser arm, any input numbers:
   HostRes base u := hosti u = HI_None
                  \/ the stored host text ht u is the Display of a non-empty host that the host parser of the scheme
                     class of u returned (hp = Host::parse for special schemes, hpo = Host::parse_opaque otherwise)
                  \/ the base has a host, ht u = ht b and u has the scheme class of b.
   Base: well formed, host_text_ok, bk. *)
Theorem C05_parse_host_origin : forall dbg hp hpo hd ovr base input u, HostWf hp hpo hd ->
  match base with Some b => wf_b b = true /\ C06_Suffix.host_text_ok b /\ bk b | None => True end ->
  parse_url dbg hp hpo hd ovr base input = POk u -> HostRes hp hpo hd base u.
Proof. intros dbg hp hpo hd ovr base input u HW. exact (parse_url_host dbg hp hpo hd ovr HW base input u). Qed.
Check C05_parse_host_origin : forall dbg hp hpo hd ovr base input u, HostWf hp hpo hd ->
  match base with Some b => wf_b b = true /\ C06_Suffix.host_text_ok b /\ bk b | None => True end ->
  parse_url dbg hp hpo hd ovr base input = POk u -> HostRes hp hpo hd base u.
Print Assumptions C05_parse_host_origin.

(* HostSpQ hp hd Q (Proofs/C05_HostClause.v): every host other than the empty one that hp (Host::parse, the parser of
   special schemes) returns, and every address value, is displayed as a text that satisfies Q.
   HC Q u: if the scheme of u is special, what Url::host_str() returns satisfies Q.
   For EVERY record of CReachF (parse, join, gated steps of the 19 mutators, query_pairs_mut sessions): a special URL
   never gets its host from Host::parse_opaque, and the scheme class only goes from special to special. *)
Theorem C05_host_clause_reachF : forall dbg hp hpo hd Q u,
  HostSpQ hp hd Q -> HostWf hp hpo hd -> IpDisp hd -> HostOK hp hpo hd -> IpOKv hd ->
  CReachF dbg hp hpo hd u -> HC Q u.
Proof. intros dbg hp hpo hd Q u HQ HW HI HOK HV. exact (creachF_hc dbg hp hpo hd Q HQ HW HI HOK HV u). Qed.
Check C05_host_clause_reachF : forall dbg hp hpo hd Q u,
  HostSpQ hp hd Q -> HostWf hp hpo hd -> IpDisp hd -> HostOK hp hpo hd -> IpOKv hd ->
  CReachF dbg hp hpo hd u -> HC Q u.
Print Assumptions C05_host_clause_reachF.

(* along histories of gated steps and sessions from any start record with FInv and HC (GHistF) *)
Theorem C05_host_clause_history : forall dbg hp hpo hd Q u u',
  HostSpQ hp hd Q -> HostWf hp hpo hd -> IpDisp hd -> HostOK hp hpo hd -> IpOKv hd ->
  GHistF dbg hp hpo hd u u' -> FInv dbg u -> HC Q u -> FInv dbg u' /\ HC Q u'.
Proof. intros dbg hp hpo hd Q u u' HQ HW HI HOK HV. exact (hc_history dbg hp hpo hd Q HQ HW HI HOK HV u u'). Qed.
Check C05_host_clause_history : forall dbg hp hpo hd Q u u',
  HostSpQ hp hd Q -> HostWf hp hpo hd -> IpDisp hd -> HostOK hp hpo hd -> IpOKv hd ->
  GHistF dbg hp hpo hd u u' -> FInv dbg u -> HC Q u -> FInv dbg u' /\ HC Q u'.
Print Assumptions C05_host_clause_history.

(* the hypotheses are met (Proofs/C05_FinEx2.v): Q = "inside 0x21..0x7E" for the example host functions; parse
   "http://h.x/a?q" satisfies FInv and HC, quirks set_host "o.x:81" is a gated step, the result has host text "o.x" *)
Example C05_host_clause_inhabited : hc_example_stmt.
Proof. exact hc_example. Qed.

(* Linked with the host model (Model/Host.v), premise IdnaOK only (Proofs/C05_HostInst.v).
   host_text_clean s := s is a bracketed IPv6 literal, or every byte of s is ASCII, not an upper-case letter and not a
   forbidden domain code point of the Standard (forbidden host code points, C0 controls, '%', DEL).
   HostSpQ holds for the model: domains by C09's domain_form, IPv4 text is digits and dots. *)
Theorem C05_host_model_clean : forall idna, IdnaOK idna -> HostSpQ (host_parse idna) host_display host_text_clean.
Proof. exact model_HostSpQ. Qed.
Check C05_host_model_clean : forall idna, IdnaOK idna -> HostSpQ (host_parse idna) host_display host_text_clean.
Print Assumptions C05_host_model_clean.

(* the property text of C05 for every record of CReachF of the linked model: the invariant (component clauses, AS, byte
   alphabet, space-free host text), alphabet_ok, sharp, base_ok, and the host clause *)
Theorem C05_reachF_model : forall dbg idna, IdnaOK idna -> forall u,
  CReachF dbg (host_parse idna) host_parse_opaque host_display u ->
  (wfh u /\ components_clean dbg u) /\ alphabet_ok u /\ sharp u /\ base_ok u = true
  /\ (spb u = true -> forall s, host_str u = Some (Some s) -> host_text_clean s).
Proof.
  intros dbg idna OK u R. split; [exact (reachF_components_model idna OK dbg u R)|].
  split; [exact (reachF_alphabet_model idna OK dbg u R)|]. split; [exact (reachF_sharp_model idna OK dbg u R)|].
  split; [exact (proj1 (reachF_base_ok_model idna OK dbg u R)) | exact (reachF_host_clean_model idna OK dbg u R)].
Qed.
Check C05_reachF_model : forall dbg idna, IdnaOK idna -> forall u,
  CReachF dbg (host_parse idna) host_parse_opaque host_display u ->
  (wfh u /\ components_clean dbg u) /\ alphabet_ok u /\ sharp u /\ base_ok u = true
  /\ (spb u = true -> forall s, host_str u = Some (Some s) -> host_text_clean s).
Print Assumptions C05_reachF_model.

(* the backslash clause: special-scheme paths contain no '\' *)
(* the hierarchical path states for a special scheme, in EVERY context (URL parser, Url::set_path, path_segments_mut)
   and for ANY input numbers, keep the text in front of the path and write no backslash: in the parser / set_path
   contexts '\' is a separator (written as '/'), in the path_segments_mut context SPECIAL_PATH_SEGMENT encodes it *)
Theorem C05_special_path_states : forall dbg ctx st hh s0 l s1 hh' rem, st_is_special st = true ->
  parse_path_start dbg ctx st hh s0 l = POk (s1, hh', rem) ->
  exists P, s1 = s0 ++ P /\ forallb nb P = true.
Proof. exact parse_path_start_nb. Qed.
Check C05_special_path_states : forall dbg ctx st hh s0 l s1 hh' rem, st_is_special st = true ->
  parse_path_start dbg ctx st hh s0 l = POk (s1, hh', rem) ->
  exists P, s1 = s0 ++ P /\ forallb nb P = true.
Print Assumptions C05_special_path_states.

(* BS u := special scheme -> every byte of the stored path slice is not '\'.  Every record parse_url returns, any input
   numbers, no hypothesis on the host functions; base: wf_b, AS, BS *)
Theorem C05_special_path_parse : forall dbg hp hpo hd ovr base input u,
  match base with Some b => wf_b b = true /\ AS b /\ BS b | None => True end ->
  parse_url dbg hp hpo hd ovr base input = POk u -> BS u.
Proof. exact parse_url_bs. Qed.
Check C05_special_path_parse : forall dbg hp hpo hd ovr base input u,
  match base with Some b => wf_b b = true /\ AS b /\ BS b | None => True end ->
  parse_url dbg hp hpo hd ovr base input = POk u -> BS u.
Print Assumptions C05_special_path_parse.

(* every record of CReachF with a special scheme is not cannot-be-a-base and its path() contains no '\' *)
Theorem C05_special_path_reachF : forall dbg hp hpo hd u, HostWf hp hpo hd -> HostOK hp hpo hd -> IpDisp hd -> IpOKv hd ->
  CReachF dbg hp hpo hd u -> spb u = true ->
  cannot_be_a_base u = Some false /\ forall p, path u = Some p -> ~ In 92 p.
Proof. intros dbg hp hpo hd u HW HOK HI HV. exact (creachF_special_path dbg hp hpo hd HW HOK HI HV u). Qed.
Check C05_special_path_reachF : forall dbg hp hpo hd u, HostWf hp hpo hd -> HostOK hp hpo hd -> IpDisp hd -> IpOKv hd ->
  CReachF dbg hp hpo hd u -> spb u = true ->
  cannot_be_a_base u = Some false /\ forall p, path u = Some p -> ~ In 92 p.
Print Assumptions C05_special_path_reachF.

Theorem C05_special_path_model : forall dbg idna, IdnaOK idna -> forall u,
  CReachF dbg (host_parse idna) host_parse_opaque host_display u -> spb u = true ->
  cannot_be_a_base u = Some false /\ forall p, path u = Some p -> ~ In 92 p.
Proof. intros dbg idna OK. exact (reachF_special_path_model idna OK dbg). Qed.
Check C05_special_path_model : forall dbg idna, IdnaOK idna -> forall u,
  CReachF dbg (host_parse idna) host_parse_opaque host_display u -> spb u = true ->
  cannot_be_a_base u = Some false /\ forall p, path u = Some p -> ~ In 92 p.
Print Assumptions C05_special_path_model.

(* non-vacuity (Proofs/C05_FinEx2.v): parse "http://h.x\a"; set_path("x\y"); path_segments_mut().push("c\d") is a history
   of CReachF and gives "http://h.x/x/y/c%5Cd" *)
Example C05_special_path_inhabited : bs_example_stmt.
Proof. exact bs_example. Qed.

Definition ex_hp (s : list N) : result host := Ok (HDomain s).
Definition ex_hd (h : host) : list N := match h with HDomain d => d | _ => [] end.

(* "http://u s:p@h/a b<TAB>e-acute?c'd#e`f<LF><SP>"  ->  "http://u%20s:p@h/a%20b%C3%A9?c%27d#e%60f"
   "a:x y?q r#f g"  ->  "a:x y?q%20r#f%20g" with an opaque path (the space stays) *)
Example C05_nonvacuous :
  (exists u, parse_url false ex_hp ex_hp ex_hd None None
      [104;116;116;112;58;47;47;117;32;115;58;112;64;104;47;97;32;98;9;233;63;99;39;100;35;101;96;102;10;32] = POk u
    /\ ser u = [104;116;116;112;58;47;47;117;37;50;48;115;58;112;64;104;47;97;37;50;48;98;37;67;51;37;65;57;63;
                99;37;50;55;100;35;101;37;54;48;102])
  /\ (exists u, parse_url false ex_hp ex_hp ex_hd None None [97;58;120;32;121;63;113;32;114;35;102;32;103] = POk u
    /\ ser u = [97;58;120;32;121;63;113;37;50;48;114;35;102;37;50;48;103]
    /\ cannot_be_a_base u = Some true).
Proof. split; eexists; vm_compute; repeat split; reflexivity. Qed.

(* the hypotheses HostOK / IpOK are satisfiable: a host parser that accepts exactly the texts inside
   0x21..0x7E and prints them back (and prints nothing for IP values) *)
Definition okb (b : N) : bool := (33 <=? b) && (b <=? 126).
Definition ex_hp2 (s : list N) : result host := if forallb okb s then Ok (HDomain s) else Err IdnaError.

Example C05_hypotheses_inhabited :
  HostOK ex_hp2 ex_hp2 ex_hd /\ IpOK ex_hd
  /\ exists u, parse_url true ex_hp2 ex_hp2 ex_hd None None [104;116;116;112;58;47;47;104;47;32;120] = POk u
               /\ ser u = [104;116;116;112;58;47;47;104;47;37;50;48;120].
Proof.
  split; [|split].
  - intros h [->|[[s Hs]|[s Hs]]]; [constructor| |];
      unfold ex_hp2 in Hs; destruct (forallb okb s) eqn:E; try discriminate; inversion Hs; subst; cbn [ex_hd];
      rewrite forallb_forall in E; apply Forall_forall; intros x Hx; specialize (E x Hx); unfold okb, ok_byte in *; lia.
  - intros h Hh. destruct h; [destruct Hh | constructor | constructor].
  - eexists. vm_compute. split; reflexivity.
Qed.

(* the gated histories are inhabited: parse "a:b", set_path("x y") (opaque path, stays opaque),
   set_query(Some "q r"), set_fragment(Some "f`") - every gate holds, the result is "a:x y?q%20r#f%60" *)
Example C05_gated_history_inhabited :
  exists u0 u3, parse_url true ex_hp ex_hp ex_hd None None [97; 58; 98] = POk u0
    /\ opaque_start [97; 58; 98] = true
    /\ GHist true ex_hp ex_hp ex_hd u0 u3
    /\ ser u3 = [97; 58; 120; 32; 121; 63; 113; 37; 50; 48; 114; 35; 102; 37; 54; 48].
Proof.
  eexists. eexists. split; [vm_compute; reflexivity|]. split; [vm_compute; reflexivity|]. split.
  - eapply (GH_step true ex_hp ex_hp ex_hd _ (OSetPath [120; 32; 121])); [ | vm_compute; reflexivity | ].
    + cbn [step_gate]. split; [repeat constructor; unfold is_usv; lia|].
      split; [intros H; vm_compute in H; discriminate|]. split; [intros _; vm_compute; reflexivity|].
      vm_compute. reflexivity.
    + eapply (GH_step true ex_hp ex_hp ex_hd _ (OSetQuery (Some [113; 32; 114]))); [ | vm_compute; reflexivity | ].
      * cbn [step_gate str_arg_ok]. repeat constructor; unfold is_usv; lia.
      * eapply (GH_step true ex_hp ex_hp ex_hd _ (OSetFragment (Some [102; 96]))); [ | vm_compute; reflexivity | ].
        -- exact I.
        -- apply GH_refl.
  - vm_compute. reflexivity.
Qed.
