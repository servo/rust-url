(* Properties/C14.v - statements of property C14 (percent_encoding: PercentEncode, percent_decode, AsciiSet).
   Each theorem is a lemma of Proofs/C14_Set.v, C14_Enc.v, C14_Views.v, or a conjunction of such lemmas. *)
From RU Require Import Base.Prelude Model.AsciiSet Gen.Tables Model.PercentEncoding
  Proofs.C14_Set Proofs.C14_Enc Proofs.C14_Views.

(* the regenerated table is "%XX" with upper-case hex digits for every byte *)
Theorem C14_table : forall b, is_byte b -> enc_byte b = [37; hex_upper (b / 16); hex_upper (b mod 16)].
Proof. exact enc_byte_is_spec. Qed.
Check C14_table : forall b, is_byte b -> enc_byte b = [37; hex_upper (b / 16); hex_upper (b mod 16)].
Print Assumptions C14_table.

(* round trip for every set containing '%' *)
Theorem C14_rt : forall S bs, aset_contains S 37 = true -> bytes bs -> decode (encode S bs) = bs.
Proof. exact decode_encode. Qed.
Check C14_rt : forall S bs, aset_contains S 37 = true -> bytes bs -> decode (encode S bs) = bs.
Print Assumptions C14_rt.

(* what the iterator writes is the per-byte map `encode` (copy ASCII outside S, else %XX), ASCII only *)
Theorem C14_form : forall S bs, bytes bs ->
  pe_display S bs = flat_map (fun b => if should_encode S b then [37; hex_upper (b / 16); hex_upper (b mod 16)] else [b]) bs
  /\ ascii (pe_display S bs).
Proof.
  intros S bs H. split; [exact (pe_display_is_encode S bs H)|].
  rewrite pe_display_is_encode by exact H. exact (encode_ascii S bs H).
Qed.
Check C14_form : forall S bs, bytes bs ->
  pe_display S bs = flat_map (fun b => if should_encode S b then [37; hex_upper (b / 16); hex_upper (b mod 16)] else [b]) bs
  /\ ascii (pe_display S bs).
Print Assumptions C14_form.

Theorem C14_app : forall S x y, encode S (x ++ y) = encode S x ++ encode S y.
Proof. exact encode_app. Qed.
Check C14_app : forall S x y, encode S (x ++ y) = encode S x ++ encode S y.
Print Assumptions C14_app.

(* a split is safe whenever x has no '%' among its last two bytes (then no escape is cut) *)
Theorem C14_split : forall x y, pct_tail x = false -> decode (x ++ y) = decode x ++ decode y.
Proof. exact decode_split. Qed.
Check C14_split : forall x y, pct_tail x = false -> decode (x ++ y) = decode x ++ decode y.
Print Assumptions C14_split.

(* views of PercentEncode agree: iterator protocol, Display, Cow, size_hint *)
Theorem C14_views_enc : forall S bs, bytes bs ->
  pe_chunks S bs = match pe_next S bs with None => [] | Some (c, rest) => c :: pe_chunks S rest end
  /\ concat (pe_chunks S bs) = encode S bs
  /\ Forall (fun c => c <> []) (pe_chunks S bs)
  /\ snd (pe_cow S bs) = encode S bs
  /\ (let n := N.of_nat (length (pe_chunks S bs)) in
      fst (pe_size_hint bs) <= n /\ match snd (pe_size_hint bs) with Some hi => n <= hi | None => True end).
Proof.
  intros S bs H. repeat split.
  - exact (pe_chunks_unfold S bs H).
  - exact (pe_display_is_encode S bs H).
  - exact (pe_chunks_nonempty S bs H).
  - exact (pe_cow_value S bs H).
  - exact (proj1 (pe_size_hint_ok S bs H)).
  - exact (proj2 (pe_size_hint_ok S bs H)).
Qed.
Print Assumptions C14_views_enc.

(* views of PercentDecode agree: Cow value, size_hint *)
Theorem C14_views_dec : forall bs,
  snd (pd_cow bs) = decode bs
  /\ (let n := N.of_nat (length (decode bs)) in
      fst (pd_size_hint bs) <= n /\ match snd (pd_size_hint bs) with Some hi => n <= hi | None => True end).
Proof. intros bs. split; [exact (pd_cow_value bs) | exact (pd_size_hint_ok bs)]. Qed.
Print Assumptions C14_views_dec.

(* the Cow variant of PercentEncode: BorrowedInput only if encoding changes nothing, Owned only if it changes
   something; BorrowedStatic is the empty input or a single encoded byte.  No equivalence: the empty input is
   unchanged and yields BorrowedStatic.  The decoder side, C14_borrow_dec, is an equivalence. *)
Theorem C14_borrow_enc : forall S bs, bytes bs ->
  match fst (pe_cow S bs) with
  | BorrowedInput => encode S bs = bs /\ snd (pe_cow S bs) = bs
  | BorrowedStatic => bs = [] \/ exists b, bs = [b] /\ should_encode S b = true
  | Owned => encode S bs <> bs
  end.
Proof. exact pe_cow_kind. Qed.
Print Assumptions C14_borrow_enc.

Theorem C14_borrow_dec : forall bs, fst (pd_cow bs) = BorrowedInput <-> decode bs = bs.
Proof. exact pd_cow_borrow_iff. Qed.
Check C14_borrow_dec : forall bs, fst (pd_cow bs) = BorrowedInput <-> decode bs = bs.
Print Assumptions C14_borrow_dec.

(* set algebra on the 128 ASCII values *)
Theorem C14_set : forall s t x y, x < 128 -> y < 128 ->
  aset_contains (aset_add s x) y = ((x =? y) || aset_contains s y)
  /\ aset_contains (aset_remove s x) y = (negb (x =? y) && aset_contains s y)
  /\ aset_contains (aset_union s t) y = (aset_contains s y || aset_contains t y)
  /\ aset_contains (aset_complement s) y = negb (aset_contains s y)
  /\ aset_contains aset_empty y = false.
Proof.
  intros s t x y Hx Hy. repeat split.
  - exact (contains_add s x y Hx Hy).
  - exact (contains_remove s x y Hx Hy).
  - exact (contains_union s t y Hy).
  - exact (contains_complement s y Hy).
  - exact (contains_empty y).
Qed.
Print Assumptions C14_set.

(* known finding F-C04-4 / F-C14-1: add panics exactly on non-ASCII arguments *)
Theorem C14_add_panics_iff : forall s x, aset_add_o s x = None <-> 128 <= x.
Proof. exact add_panics_iff. Qed.
Print Assumptions C14_add_panics_iff.

(* non-vacuity: the premises are met by the sets the url crate uses and by a non-trivial string *)
Example C14_premises_hold :
  aset_contains T_NON_ALPHANUMERIC 37 = true /\ aset_contains T_PATH_SEGMENT 37 = true
  /\ decode (encode T_PATH_SEGMENT [104; 37; 50; 53; 47; 255; 32]) = [104; 37; 50; 53; 47; 255; 32]
  /\ encode T_PATH_SEGMENT [37; 47; 255] = [37; 50; 53; 37; 50; 70; 37; 70; 70].
Proof. vm_compute. repeat split. Qed.
