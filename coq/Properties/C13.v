(* Properties/C13.v - Punycode: the statements of property C13.  Each is closed by `exact` of a lemma of
   Proofs/C13_*.v, except C13_ascii (assembled here from three lemmas) and the Examples at the end (computed here).
   Panic sites are line numbers of idna/src/punycode.rs.
   Results of the model are `res`: Ok v | Err | Panic line; the public functions' None is Err.
   cfg = true: overflow checks compiled in (cargo dev profile); cfg = false: wrapping (release). *)
From RU Require Import Base.Prelude Base.U32_c13 Model.Punycode Spec.Rfc3492
  Proofs.C13_Ascii Proofs.C13_Enc Proofs.C13_Dec Proofs.C13_Known Proofs.C13_Vli Proofs.C13_Rt Proofs.C13_Main
  Proofs.C13_DecB Proofs.C13_DecEnc Proofs.C13_Small
  Proofs.C13_Mono Proofs.C13_Parse Proofs.C13_EncDec.

(* the regenerated Bootstring parameters are those of RFC 3492 section 5 *)
Theorem C13_consts :
  BASE = 36 /\ T_MIN = 1 /\ T_MAX = 26 /\ SKEW = 38 /\ DAMP = 700 /\ INITIAL_BIAS = 72 /\ INITIAL_N = 128.
Proof. exact consts_are_rfc3492. Qed.
Check C13_consts :
  BASE = 36 /\ T_MIN = 1 /\ T_MAX = 26 /\ SKEW = 38 /\ DAMP = 700 /\ INITIAL_BIAS = 72 /\ INITIAL_N = 128.
Print Assumptions C13_consts.

(* the regenerated digit tables: where value_to_digit v yields a code unit c, both digit functions (u8 and char
   code units) map c back to v.  That value_to_digit yields one for every v in 0..35 is C13_Ascii.value_to_digit_total. *)
Theorem C13_digits : forall v c, value_to_digit v = Ok c -> digit_u8 c = Some v /\ digit_char c = Some v.
Proof. exact digit_of_value. Qed.
Check C13_digits : forall v c, value_to_digit v = Ok c -> digit_u8 c = Some v /\ digit_char c = Some v.
Print Assumptions C13_digits.

(* encoder output is ASCII: every entry point, both caller kinds, both configurations *)
Theorem C13_ascii : forall cfg s p,
  (encode cfg s = Ok p -> ascii p) /\ (encode_str cfg s = Ok p -> ascii p) /\ (encode_internal cfg s = Ok p -> ascii p).
Proof. intros cfg s p. repeat split; [exact (encode_ascii cfg s p)|exact (encode_str_ascii cfg s p)|exact (encode_into_ascii cfg false s p)]. Qed.
Check C13_ascii : forall cfg s p,
  (encode cfg s = Ok p -> ascii p) /\ (encode_str cfg s = Ok p -> ascii p) /\ (encode_internal cfg s = Ok p -> ascii p).
Print Assumptions C13_ascii.

(* never a panic, never a wrong answer: in both configurations the public encoders return None or the
   RFC 3492 result over unbounded integers (for EVERY input list, so in particular they do not panic);
   the public decoders, on inputs outside the class of finding F-C13-2 (2^32 code units or more), do
   not panic (this includes Panic 284, the model's mark for a `loop` of the Decode iterator that does not terminate), and a
   Some result is the unbounded RFC 3492 result.  decode and decode_to_string have the same body in
   Model/Punycode.v; both are named because both are public functions of the crate. *)
Theorem C13_safe : forall cfg,
  (forall s, (encode cfg s = Err \/ encode cfg s = Ok (s_encode s))
             /\ (encode_str cfg s = Err \/ encode_str cfg s = Ok (s_encode s)))
  /\ (forall p, ~ Known_C13_2 p ->
        (forall site, decode cfg p <> Panic site) /\ (forall site, decode_to_string cfg p <> Panic site)
        /\ (forall s, decode cfg p = Ok s -> s_decode p = Some s)
        /\ (forall s, decode_to_string cfg p = Ok s -> s_decode p = Some s)).
Proof. exact safe_main. Qed.
Check C13_safe : forall cfg,
  (forall s, (encode cfg s = Err \/ encode cfg s = Ok (s_encode s))
             /\ (encode_str cfg s = Err \/ encode_str cfg s = Ok (s_encode s)))
  /\ (forall p, ~ Known_C13_2 p ->
        (forall site, decode cfg p <> Panic site) /\ (forall site, decode_to_string cfg p <> Panic site)
        /\ (forall s, decode cfg p = Ok s -> s_decode p = Some s)
        /\ (forall s, decode_to_string cfg p = Ok s -> s_decode p = Some s)).
Print Assumptions C13_safe.

(* the crate-internal decoder instantiations (u8 and char code units, internal caller) do not panic either *)
Theorem C13_safe_internal_decoder : forall cfg it p, ~ Known_C13_2 p -> forall site, decode_with cfg it p <> Panic site.
Proof. exact internal_decoder_no_panic. Qed.
Check C13_safe_internal_decoder : forall cfg it p, ~ Known_C13_2 p -> forall site, decode_with cfg it p <> Panic site.
Print Assumptions C13_safe_internal_decoder.

(* finding F-C13-2: a decoder input with 2^32 - 1 basic code units panics, in both configurations *)
Theorem C13_2_refuted : exists p, Known_C13_2 p /\ ascii p /\ forall cfg, exists site, decode cfg p = Panic site.
Proof. exact c13_2_refuted. Qed.
Check C13_2_refuted : exists p, Known_C13_2 p /\ ascii p /\ forall cfg, exists site, decode cfg p = Panic site.
Print Assumptions C13_2_refuted.

(* the unchecked internal-caller encoder equals the checked one up to 1000 scalars: no wrap, no
   debug-build overflow panic, and both succeed with the RFC 3492 result.  1000 is
   PUNYCODE_ENCODE_MAX_INPUT_LENGTH of idna/src/uts46.rs, on which the internal caller relies for leaving the
   checks out (doc comment of the trait PunycodeCaller in idna/src/punycode.rs). *)
Theorem C13_internal : forall cfg s, usv_list s -> (length s <= 1000)%nat ->
  encode_internal cfg s = encode cfg s /\ encode cfg s = Ok (s_encode s).
Proof. exact internal_main. Qed.
Check C13_internal : forall cfg s, usv_list s -> (length s <= 1000)%nat ->
  encode_internal cfg s = encode cfg s /\ encode cfg s = Ok (s_encode s).
Print Assumptions C13_internal.

(* finding F-C13-1: s = U+0080 x 3856 ++ [U+10FE4F] is in the class, encodes, and does not decode *)
Theorem C13_1_refuted :
  exists s, usv_list s /\ Known_C13 s /\
    forall cfg, exists p, encode cfg s = Ok p /\ decode cfg p = Err /\ decode cfg p <> Ok s.
Proof. exact c13_1_refuted. Qed.
Check C13_1_refuted :
  exists s, usv_list s /\ Known_C13 s /\
    forall cfg, exists p, encode cfg s = Ok p /\ decode cfg p = Err /\ decode cfg p <> Ok s.
Print Assumptions C13_1_refuted.

(* the round trips as Props; proved below as C13_dec_enc, C13_dec_enc_small, C13_enc_dec *)
Definition C13_dec_enc_statement : Prop :=
  forall cfg s p, usv_list s -> encode cfg s = Ok p -> ~ Known_C13 s -> decode cfg p = Ok s.
Definition C13_dec_enc_small_statement : Prop :=
  forall cfg s p, usv_list s -> (length s <= 3854)%nat -> encode cfg s = Ok p -> decode cfg p = Ok s.
Definition C13_enc_dec_statement : Prop :=
  forall cfg p s, ~ Known_C13_2 p -> decode cfg p = Ok s -> has_non_ascii s = true ->
    exists q, encode cfg s = Ok q /\ eq_upto_digit_case q p.

(* Bootstring over unbounded integers (Spec/Rfc3492) is invertible on every sequence of scalar values *)
Theorem C13_spec_round_trip : forall s, usv_list s -> s_decode (s_encode s) = Some s.
Proof. exact s_round_trip. Qed.
Check C13_spec_round_trip : forall s, usv_list s -> s_decode (s_encode s) = Some s.
Print Assumptions C13_spec_round_trip.

(* decode (encode s) is s or None - never another string, never a panic - for p shorter than 2^32 code units.
   C13_dec_enc below needs no hypothesis on p and decides which: Ok s outside the class of F-C13-1. *)
Theorem C13_dec_enc_partial : forall cfg s p, usv_list s -> encode cfg s = Ok p -> ~ Known_C13_2 p ->
  p = s_encode s /\ s_decode p = Some s /\ (decode cfg p = Ok s \/ decode cfg p = Err).
Proof. exact dec_enc_partial. Qed.
Check C13_dec_enc_partial : forall cfg s p, usv_list s -> encode cfg s = Ok p -> ~ Known_C13_2 p ->
  p = s_encode s /\ s_decode p = Some s /\ (decode cfg p = Ok s \/ decode cfg p = Err).
Print Assumptions C13_dec_enc_partial.

(* decode (encode s) = s: for every sequence of scalar values whose encoding is produced and
   which is outside the class of finding F-C13-1, in both configurations (no length hypothesis: the decoder's
   `base_len as u32` and `length + 1` cannot overflow on an encoder output, whose basic part is shorter than 2^32) *)
Theorem C13_dec_enc : C13_dec_enc_statement.
Proof. exact dec_enc_main. Qed.
Check C13_dec_enc : forall cfg s p, usv_list s -> encode cfg s = Ok p -> ~ Known_C13 s -> decode cfg p = Ok s.
Print Assumptions C13_dec_enc.

(* no exclusion at all up to 3854 scalars: the instance of C13_dec_enc_small_3855 below for length s <= 3854 *)
Theorem C13_dec_enc_small : C13_dec_enc_small_statement.
Proof. exact dec_enc_small. Qed.
Check C13_dec_enc_small : forall cfg s p, usv_list s -> (length s <= 3854)%nat -> encode cfg s = Ok p -> decode cfg p = Ok s.
Print Assumptions C13_dec_enc_small.

(* no exclusion at all up to 3855 scalars: no s that short is in the class of F-C13-1 (whose witness in
   C13_1_refuted has 3857 scalars, C13_Known.witness_c13_1_len) *)
Theorem C13_dec_enc_small_3855 : forall cfg s p, usv_list s -> (length s <= 3855)%nat -> encode cfg s = Ok p -> decode cfg p = Ok s.
Proof. exact dec_enc_small_3855. Qed.
Check C13_dec_enc_small_3855 : forall cfg s p, usv_list s -> (length s <= 3855)%nat -> encode cfg s = Ok p -> decode cfg p = Ok s.
Print Assumptions C13_dec_enc_small_3855.

(* the ingredients: the bias never exceeds 215 = 36 * 5 + 35 while deltas fit in 32 bits (C13_DecB.s_adapt_le says why); a successful run of the RFC 3492
   decoder with the 32-bit checks written out (b_dec_loop) is a successful run of the model's decoder *)
Theorem C13_bias_bound : forall d np first, d <= U32_MAX -> s_adapt d np first <= 215.
Proof. exact s_adapt_le. Qed.
Check C13_bias_bound : forall d np first, d <= U32_MAX -> s_adapt d np first <= 215.
Print Assumptions C13_bias_bound.

Theorem C13_decoder_complete : forall cfg p base rest out',
  s_split p = (base, rest) -> forallb (fun c => c <? 128) base = true -> len base <= U32_MAX ->
  b_dec_loop digit_u8 rest false 0 1 s_base 0 s_initial_n s_initial_bias base = Some out' ->
  decode cfg p = Ok out'.
Proof. exact decode_complete. Qed.
Check C13_decoder_complete : forall cfg p base rest out',
  s_split p = (base, rest) -> forallb (fun c => c <? 128) base = true -> len base <= U32_MAX ->
  b_dec_loop digit_u8 rest false 0 1 s_base 0 s_initial_n s_initial_bias base = Some out' ->
  decode cfg p = Ok out'.
Print Assumptions C13_decoder_complete.

(* both directions of encode (decode p) are the unbounded algorithms *)
Theorem C13_enc_dec_partial : forall cfg p s q, ~ Known_C13_2 p ->
  decode cfg p = Ok s -> encode cfg s = Ok q -> s_decode p = Some s /\ q = s_encode s /\ ascii q.
Proof. exact enc_dec_partial. Qed.
Check C13_enc_dec_partial : forall cfg p s q, ~ Known_C13_2 p ->
  decode cfg p = Ok s -> encode cfg s = Ok q -> s_decode p = Some s /\ q = s_encode s /\ ascii q.
Print Assumptions C13_enc_dec_partial.

(* encode (decode p) = p up to the case of the digits, for s with a non-ASCII scalar; this is the instance of
   C13_enc_dec_all below, which has no such hypothesis.  The u32 encoder does not overflow on
   what the u32 decoder produced, and it writes the basic part of p, the delimiter, and the digits of p in lower case *)
Theorem C13_enc_dec : C13_enc_dec_statement.
Proof. exact enc_dec_main. Qed.
Check C13_enc_dec : forall cfg p s, ~ Known_C13_2 p -> decode cfg p = Ok s -> has_non_ascii s = true ->
  exists q, encode cfg s = Ok q /\ eq_upto_digit_case q p.
Print Assumptions C13_enc_dec.

(* encode (decode p) = p up to the case of the digits, for every s (an all-ASCII s comes from p = s ++ "-" or p = "") *)
Theorem C13_enc_dec_all : forall cfg p s, ~ Known_C13_2 p -> decode cfg p = Ok s ->
  exists q, encode cfg s = Ok q /\ eq_upto_digit_case q p.
Proof. exact enc_dec_all. Qed.
Check C13_enc_dec_all : forall cfg p s, ~ Known_C13_2 p -> decode cfg p = Ok s ->
  exists q, encode cfg s = Ok q /\ eq_upto_digit_case q p.
Print Assumptions C13_enc_dec_all.

(* uniqueness of the generalized variable-length integers: whatever digits the decoder accepts for one delta q are,
   in lower case, the digits the encoder writes for q *)
Theorem C13_vli_unique : forall R mid oldi w k i n bias out s, R <> [] ->
  b_dec_loop digit_u8 R mid oldi w k i n bias out = Some s ->
  exists q D R', R = D ++ R'
    /\ (forall f, q < 2 ^ N.of_nat f -> map to_lower D = s_enc_vli (S f) q k bias)
    /\ i + q * w <= U32_MAX
    /\ b_dec_break (b_dec_loop digit_u8) R' oldi (i + q * w) n bias out = Some s.
Proof. exact (vli_parse digit_u8 digit_u8_lower). Qed.
Check C13_vli_unique : forall R mid oldi w k i n bias out s, R <> [] ->
  b_dec_loop digit_u8 R mid oldi w k i n bias out = Some s ->
  exists q D R', R = D ++ R'
    /\ (forall f, q < 2 ^ N.of_nat f -> map to_lower D = s_enc_vli (S f) q k bias)
    /\ i + q * w <= U32_MAX
    /\ b_dec_break (b_dec_loop digit_u8) R' oldi (i + q * w) n bias out = Some s.
Print Assumptions C13_vli_unique.

(* the <n, i> monotonicity of the decoder: of the final string, what lies below the current n is already in the
   output, and so is the prefix of length i of what lies at or below n *)
Theorem C13_decoder_monotone : forall R mid oldi w k i n bias out s,
  all_le n out -> b_dec_loop digit_u8 R mid oldi w k i n bias out = Some s ->
  (forall c, c < n -> filter (le_m c) s = filter (le_m c) out)
  /\ (forall A B, out = A ++ B -> len A <= i -> exists B', filter (le_m n) s = A ++ B').
Proof. exact (b_mono digit_u8). Qed.
Check C13_decoder_monotone : forall R mid oldi w k i n bias out s,
  all_le n out -> b_dec_loop digit_u8 R mid oldi w k i n bias out = Some s ->
  (forall c, c < n -> filter (le_m c) s = filter (le_m c) out)
  /\ (forall A B, out = A ++ B -> len A <= i -> exists B', filter (le_m n) s = A ++ B').
Print Assumptions C13_decoder_monotone.

(* the unbounded decoder reads the variable-length integer the encoder writes
   for q under the same bias and arrives at i + q * w at the end of that delta *)
Theorem C13_vli_partial : forall q k bias w i rest mid oldi n out,
  s_dec_loop s_digit_value (s_enc_vli (s_vli_fuel q) q k bias ++ rest) mid oldi w k i n bias out
  = s_dec_break s_digit_value rest oldi (i + q * w) n bias out.
Proof. exact vli_round_trip. Qed.
Check C13_vli_partial : forall q k bias w i rest mid oldi n out,
  s_dec_loop s_digit_value (s_enc_vli (s_vli_fuel q) q k bias ++ rest) mid oldi w k i n bias out
  = s_dec_break s_digit_value rest oldi (i + q * w) n bias out.
Print Assumptions C13_vli_partial.

(* the insertion list with index shifting, sorted, read by the Decode iterator, is direct insertion: Rep is preserved
   by one more insertion (first conjunct), and under Rep the iterator collects to out (second conjunct) *)
Theorem C13_insertions : forall it base ins out i c,
  Rep it base (sort_by_key ins) 0 out -> i <= len out ->
  Rep it base (sort_by_key (shift_ins i ins ++ [(i, c)])) 0 (s_insert_at i c out)
  /\ decode_collect it (sort_by_key ins) base 0 = Ok out.
Proof. exact insertions_main. Qed.
Check C13_insertions : forall it base ins out i c,
  Rep it base (sort_by_key ins) 0 out -> i <= len out ->
  Rep it base (sort_by_key (shift_ins i ins ++ [(i, c)])) 0 (s_insert_at i c out)
  /\ decode_collect it (sort_by_key ins) base 0 = Ok out.
Print Assumptions C13_insertions.

(* both round trips in executable form, for every sequence of length <= 4 over the two alphabets listed: instances of
   C13_dec_enc_small_3855 and of C13_enc_dec (rt_dec_check compares only where decode succeeds with a non-ASCII scalar
   in the result, and is true elsewhere) *)
Theorem C13_small_scope :
  forallb rt_enc_check (all_seqs [97; 45; 128; 252; 256; 65535; 65536; 1114111] 4) = true /\
  forallb rt_dec_check (all_seqs [97; 122; 65; 48; 57; 45; 33] 4) = true.
Proof. exact small_scope_round_trips. Qed.
Print Assumptions C13_small_scope.

(* non-vacuity: RFC 3492 section 7.1 sample (L) both ways, in the model and in the unbounded algorithms; the
   3856-scalar neighbour of the witness of F-C13-1 is outside the class (the witness has 3857 scalars and its
   encoding 3866 bytes: C13_Known.witness_c13_1_len) *)
Example C13_premises_hold :
  encode true [51; 24180; 66; 32068; 37329; 20843; 20808; 29983] = Ok [51; 66; 45; 119; 119; 52; 99; 53; 101; 49; 56; 48; 101; 53; 55; 53; 97; 54; 53; 108; 115; 121; 50; 98]
  /\ decode true [51; 66; 45; 119; 119; 52; 99; 53; 101; 49; 56; 48; 101; 53; 55; 53; 97; 54; 53; 108; 115; 121; 50; 98] = Ok [51; 24180; 66; 32068; 37329; 20843; 20808; 29983]
  /\ s_decode (s_encode [51; 24180; 66; 32068; 37329; 20843; 20808; 29983]) = Some [51; 24180; 66; 32068; 37329; 20843; 20808; 29983]
  /\ known_c13 (repeat 128 3855 ++ [1113679]) = false.
Proof. vm_compute. repeat split; reflexivity. Qed.

(* the hypotheses of C13_dec_enc are met by the RFC sample (L) and by the 3856-scalar neighbour of the witness
   (beyond the range of C13_dec_enc_small_3855) *)
Example C13_dec_enc_premises_hold :
  (usv_list [51; 24180; 66; 32068; 37329; 20843; 20808; 29983] /\ ~ Known_C13 [51; 24180; 66; 32068; 37329; 20843; 20808; 29983])
  /\ (usv_list (repeat 128 3855 ++ [1113679]) /\ ~ Known_C13 (repeat 128 3855 ++ [1113679])
      /\ is_ok (encode true (repeat 128 3855 ++ [1113679])) = true /\ length (repeat 128 3855 ++ [1113679]) = 3856%nat).
Proof.
  split; [split|split; [|split; [|split]]].
  - apply usv_list_forallb. vm_compute. reflexivity.
  - unfold Known_C13. vm_compute. discriminate.
  - apply usv_list_forallb. vm_compute. reflexivity.
  - unfold Known_C13. vm_compute. discriminate.
  - vm_compute. reflexivity.
  - vm_compute. reflexivity.
Qed.

(* the hypotheses of C13_enc_dec are met by sample (L) written with upper-case digits; the theorem's q is then
   the lower-case spelling *)
Example C13_enc_dec_premises_hold :
  ~ Known_C13_2 [51; 66; 45; 87; 87; 52; 67; 53; 69; 49; 56; 48; 69; 53; 55; 53; 65; 54; 53; 76; 83; 89; 50; 66]
  /\ decode true [51; 66; 45; 87; 87; 52; 67; 53; 69; 49; 56; 48; 69; 53; 55; 53; 65; 54; 53; 76; 83; 89; 50; 66]
     = Ok [51; 24180; 66; 32068; 37329; 20843; 20808; 29983]
  /\ has_non_ascii [51; 24180; 66; 32068; 37329; 20843; 20808; 29983] = true
  /\ lower_digits [51; 66; 45; 87; 87; 52; 67; 53; 69; 49; 56; 48; 69; 53; 55; 53; 65; 54; 53; 76; 83; 89; 50; 66]
     = [51; 66; 45; 119; 119; 52; 99; 53; 101; 49; 56; 48; 101; 53; 55; 53; 97; 54; 53; 108; 115; 121; 50; 98].
Proof.
  split; [|vm_compute; repeat split; reflexivity].
  unfold Known_C13_2. vm_compute. discriminate.
Qed.
