(* Properties/C12.v - ToUnicode / ToASCII mutually inverse on accepted names.  Statements; the lemmas
   are in Proofs/Idna_C12*.v.  The statement C12_statement (Proofs/Idna_Hyp.v; relative to AdapterOK and the Punycode
   round trip PunyRT, outside Known_C12) is REFUTED as written (C12_statement_refuted: F-C10-1, a label whose Punycode
   form is longer than 2000); C12_statement2 (Proofs/Idna_C10b_Stmt.v, also outside Known_C10_long) is REFUTED for an
   abstract adapter (C12_statement2_refuted: its adapter premises miss MapPrefix); the statement with the premises AdapterUSV and MapPrefix added is C12_statement3
   (Proofs/Idna_C12b_Stmt3.v), of which C12_ascii_form proves: the ASCII form is a fixed point of ToASCII and ToUnicode
   reports no error for it, and C12_u_of_a proves clause u_of_a IN FULL (ToUnicode of the ASCII form = ToUnicode of the
   name, same text, no error; no exclusion of Known_C12 / Known_C11 needed).  C12_statement3 as a whole is FALSE for an
   abstract adapter (C12_statement3_refuted: its premises do not make a text accepted by normalize_validate a fixed point
   of map_normalize, so clause a_of_u fails); C12_statement4 (Proofs/Idna_C12c_Stmt4.v) adds that premise, NvMapFix
   (sampled as ok_nv_mapfix), and is neither proved nor refuted; C12_round_partial proves its clauses u_of_a, a_of_u and u_idem on the class
   of names without an accepted xn-- input label (PunyIn d = false).  C12_statement4 still misses one adapter premise for
   names WITH an accepted xn-- input label (NvNoGrow: normalize_validate never returns its argument followed by more text;
   after_punycode_decode compares the two texts with a zip that stops at the shorter); C12_statement5
   (Proofs/Idna_C12d_Stmt5.v) adds it (sampled as nvnogrow) and is PROVED IN FULL: C12_5 - all four clauses, every accepted
   byte string outside Known_C12 and Known_C10_long, every display policy; C12_all is the same without the exclusion of
   Known_C11.  The Punycode fact behind it is C12_enc_dec_internal; see theorem_notes in tools/props_d/C12.py. *)
From RU Require Import Base.Prelude Base.Utf8 Base.Utf8Facts Base.U32_c13 Gen.Tables Model.Punycode Model.Uts46
  Proofs.Idna_Sim Proofs.Idna_Api Proofs.Idna_Known Proofs.Idna_Hyp Proofs.Idna_C12 Proofs.Idna_Tables Proofs.Idna_PunyRT
  Proofs.Idna_C10b_Long Proofs.Idna_C10b_Stmt Proofs.Idna_C10b_AsciiInner Proofs.Idna_C10b_AsciiWalk Proofs.Idna_C12_Ascii
  Proofs.Idna_C10_Inner Proofs.Idna_WalkEnc Proofs.Idna_C10c_Drun Proofs.Idna_C10c_Example Proofs.Idna_C10c_Refute Proofs.Idna_C12b_Stmt3
  Proofs.Idna_C10_Deny Proofs.Idna_WalkFun Proofs.Idna_C10d_CaseLoop Proofs.Idna_C12c_Virtual Proofs.Idna_C12c_UofA Proofs.Idna_C12c_Stmt4 Proofs.Idna_C10c_Drun Proofs.Idna_C12c_ULabel Proofs.Idna_C12c_Round
  Proofs.Idna_C12d_EncDec Proofs.Idna_C12d_Round Proofs.Idna_C12d_UI Proofs.Idna_C12d_Stmt5.

(* the four clauses on names of the fastest tier (lower-case letters and dots), every adapter *)
Theorem C12_fast_partial : forall A cfg d deny hy p, bytes d -> fast_tier d d = None ->
  let a := d in let u := ui_text (to_unicode A cfg d deny hy) in
  to_ascii A cfg d deny hy DIgnore = Ok (true, a) /\
  to_unicode A cfg a deny hy = UI true u false /\
  to_ascii A cfg (utf8_encode u) deny hy DIgnore = Ok (true, a) /\
  to_unicode A cfg (utf8_encode u) deny hy = UI true u false /\
  to_ascii A cfg (utf8_encode (ui_text (to_user_interface A cfg d deny hy p))) deny hy DIgnore = Ok (true, a).
Proof. exact c12_fast. Qed.
Check C12_fast_partial : forall A cfg d deny hy p, bytes d -> fast_tier d d = None ->
  let a := d in let u := ui_text (to_unicode A cfg d deny hy) in
  to_ascii A cfg d deny hy DIgnore = Ok (true, a) /\
  to_unicode A cfg a deny hy = UI true u false /\
  to_ascii A cfg (utf8_encode u) deny hy DIgnore = Ok (true, a) /\
  to_unicode A cfg (utf8_encode u) deny hy = UI true u false /\
  to_ascii A cfg (utf8_encode (ui_text (to_user_interface A cfg d deny hy p))) deny hy DIgnore = Ok (true, a).
Print Assumptions C12_fast_partial.

(* all four clauses (u_of_a, a_of_u, u_idem, ui) on the adapter-free class AN d = every label of d is ASCII and does not
   start with xn-- (any case): EVERY adapter, every deny list the API can build, every hyphen mode, every display
   policy, debug assertions on or off.  There ToASCII, ToUnicode and to_user_interface all return the ASCII
   lower-casing of the name *)
Theorem C12_an : forall A cfg d deny hy b a, AN d -> valid_deny deny ->
  to_ascii A cfg d deny hy DIgnore = Ok (b, a) ->
  let u := ui_text (to_unicode A cfg d deny hy) in
  a = map to_lower d /\ u = a /\ ui_err (to_unicode A cfg d deny hy) = false /\
  (ui_text (to_unicode A cfg a deny hy) = u /\ ui_err (to_unicode A cfg a deny hy) = false) /\
  (exists b', to_ascii A cfg (utf8_encode u) deny hy DIgnore = Ok (b', a)) /\
  (ui_text (to_unicode A cfg (utf8_encode u) deny hy) = u /\ ui_err (to_unicode A cfg (utf8_encode u) deny hy) = false) /\
  (forall p, exists b', to_ascii A cfg (utf8_encode (ui_text (to_user_interface A cfg d deny hy p))) deny hy DIgnore = Ok (b', a)).
Proof. exact c12_an. Qed.
Check C12_an : forall A cfg d deny hy b a, AN d -> valid_deny deny ->
  to_ascii A cfg d deny hy DIgnore = Ok (b, a) ->
  let u := ui_text (to_unicode A cfg d deny hy) in
  a = map to_lower d /\ u = a /\ ui_err (to_unicode A cfg d deny hy) = false /\
  (ui_text (to_unicode A cfg a deny hy) = u /\ ui_err (to_unicode A cfg a deny hy) = false) /\
  (exists b', to_ascii A cfg (utf8_encode u) deny hy DIgnore = Ok (b', a)) /\
  (ui_text (to_unicode A cfg (utf8_encode u) deny hy) = u /\ ui_err (to_unicode A cfg (utf8_encode u) deny hy) = false) /\
  (forall p, exists b', to_ascii A cfg (utf8_encode (ui_text (to_user_interface A cfg d deny hy p))) deny hy DIgnore = Ok (b', a)).
Print Assumptions C12_an.

Example C12_an_premises_hold :
  AN [65; 45; 98; 46; 88; 110; 45; 99; 46] /\ valid_deny DENY_URL /\
  to_ascii toy true [65; 45; 98; 46; 88; 110; 45; 99; 46] DENY_URL HCheck DIgnore = Ok (false, [97; 45; 98; 46; 120; 110; 45; 99; 46]) /\
  to_unicode toy true [65; 45; 98; 46; 88; 110; 45; 99; 46] DENY_URL HCheck = UI false [97; 45; 98; 46; 120; 110; 45; 99; 46] false.
Proof. exact c12_an_premises_hold. Qed.

(* whenever ToASCII accepts, ToUnicode reports no error - or it returned Passthrough-with-errors
   (F-C11-2, only without debug assertions); every adapter *)
Theorem C12_accepted_no_error : forall A cfg d deny hy b a bu t e, Redisc A cfg deny ->
  to_ascii A cfg d deny hy DIgnore = Ok (b, a) ->
  to_unicode A cfg d deny hy = UI bu t e -> e = false.
Proof. exact c12_accepted_no_error. Qed.
Check C12_accepted_no_error : forall A cfg d deny hy b a bu t e, Redisc A cfg deny ->
  to_ascii A cfg d deny hy DIgnore = Ok (b, a) ->
  to_unicode A cfg d deny hy = UI bu t e -> e = false.
Print Assumptions C12_accepted_no_error.

(* the ASCII form of an accepted name, every input (non-ASCII and xn-- labels included, INSIDE Known_C12 / Known_C11 too),
   outside Known_C10_long (F-C10-1): ToASCII returns it unchanged (borrowed), ToUnicode reports no error for it - the
   "no error" half of clause u_of_a - nor for the name itself.  Premises: the sampled adapter facts of C10_idem3 *)
Theorem C12_ascii_form : forall A cfg, AdapterOK A -> AdapterUSV A -> NvNoTrunc A -> NvIdem A -> AsciiNoMark A -> MapPrefix A ->
  forall d deny hy b a, bytes d -> valid_deny deny ->
  to_ascii A cfg d deny hy DIgnore = Ok (b, a) -> Known_C10_long a = false ->
  to_ascii A cfg a deny hy DIgnore = Ok (true, a) /\
  ui_err (to_unicode A cfg a deny hy) = false /\ ui_err (to_unicode A cfg d deny hy) = false.
Proof. exact c12_ascii_form. Qed.
Check C12_ascii_form : forall A cfg, AdapterOK A -> AdapterUSV A -> NvNoTrunc A -> NvIdem A -> AsciiNoMark A -> MapPrefix A ->
  forall d deny hy b a, bytes d -> valid_deny deny ->
  to_ascii A cfg d deny hy DIgnore = Ok (b, a) -> Known_C10_long a = false ->
  to_ascii A cfg a deny hy DIgnore = Ok (true, a) /\
  ui_err (to_unicode A cfg a deny hy) = false /\ ui_err (to_unicode A cfg d deny hy) = false.
Print Assumptions C12_ascii_form.

Example C12_ascii_form_premises_hold :
  (AdapterOK lowsan /\ AdapterUSV lowsan /\ NvNoTrunc lowsan /\ NvIdem lowsan /\ AsciiNoMark lowsan /\ MapPrefix lowsan) /\
  to_ascii lowsan true W_idem3 DENY_URL HCheck DIgnore = Ok (false, W_idem3_A) /\ Known_C10_long W_idem3_A = false /\
  to_unicode lowsan true W_idem3_A DENY_URL HCheck = UI false [97; 46; 98; 252; 99; 104; 101; 114] false.
Proof. split; [exact lowsan_premises|exact c12_ascii_form_premises_hold]. Qed.

(* clause u_of_a IN FULL, every input (non-ASCII and xn-- labels included, INSIDE Known_C12 / Known_C11 too), every deny
   list the API can build, every hyphen mode, outside Known_C10_long (F-C10-1): ToUnicode of the ASCII form is ToUnicode of
   the name - same text, no error, no panic.  Premises: the sampled adapter facts of C10_idem3 *)
Theorem C12_u_of_a : forall A cfg, AdapterOK A -> AdapterUSV A -> NvNoTrunc A -> NvIdem A -> AsciiNoMark A -> MapPrefix A ->
  forall d deny hy b a, bytes d -> valid_deny deny ->
  to_ascii A cfg d deny hy DIgnore = Ok (b, a) -> Known_C10_long a = false ->
  ui_text (to_unicode A cfg a deny hy) = ui_text (to_unicode A cfg d deny hy) /\
  ui_err (to_unicode A cfg a deny hy) = false /\ ui_err (to_unicode A cfg d deny hy) = false /\
  ui_panics (to_unicode A cfg a deny hy) = false /\ ui_panics (to_unicode A cfg d deny hy) = false.
Proof. exact c12_u_of_a. Qed.
Check C12_u_of_a : forall A cfg, AdapterOK A -> AdapterUSV A -> NvNoTrunc A -> NvIdem A -> AsciiNoMark A -> MapPrefix A ->
  forall d deny hy b a, bytes d -> valid_deny deny ->
  to_ascii A cfg d deny hy DIgnore = Ok (b, a) -> Known_C10_long a = false ->
  ui_text (to_unicode A cfg a deny hy) = ui_text (to_unicode A cfg d deny hy) /\
  ui_err (to_unicode A cfg a deny hy) = false /\ ui_err (to_unicode A cfg d deny hy) = false /\
  ui_panics (to_unicode A cfg a deny hy) = false /\ ui_panics (to_unicode A cfg d deny hy) = false.
Print Assumptions C12_u_of_a.

Example C12_u_of_a_premises_hold :
  (AdapterOK lowsan /\ AdapterUSV lowsan /\ NvNoTrunc lowsan /\ NvIdem lowsan /\ AsciiNoMark lowsan /\ MapPrefix lowsan) /\
  to_ascii lowsan true W_idem3 DENY_URL HCheck DIgnore = Ok (false, W_idem3_A) /\ Known_C10_long W_idem3_A = false /\
  to_unicode lowsan true W_idem3 DENY_URL HCheck = UI false [97; 46; 98; 252; 99; 104; 101; 114] false /\
  to_unicode lowsan true W_idem3_A DENY_URL HCheck = UI false [97; 46; 98; 252; 99; 104; 101; 114] false.
Proof. split; [exact lowsan_premises|exact c12_u_of_a_example]. Qed.

(* ToASCII and ToUnicode of a name read off its virtual run (every label processed, none passed through): if the virtual
   run succeeds, its buffer has the bidi verdict bd and - when bd is set - the labels behind the first k (k at most the
   number of leading pass-through labels of the name) pass the bidi rule, then ToUnicode shows the Unicode texts of the
   virtual pairs, without error.  Premise: Redisc (a consequence of map_normalize [] = []) *)
Theorem C12_virtual_unicode : forall A cfg deny hy, DenyUpper deny -> LdhFree deny -> Redisc A cfg deny ->
  forall d Ys Fss k bd, bytes d -> proc_all A cfg deny hy (split_on DOT d) = SOk (Ys, Fss) -> VBk A cfg k bd Ys ->
  (k <= length (ptake (split_on DOT d)))%nat ->
  exists b ov, outs cfg uT (VL Ys) (concat Fss) = inl ov /\ to_unicode A cfg d deny hy = UI b (join_dots ov) false.
Proof. exact virtual_unicode. Qed.
Check C12_virtual_unicode : forall A cfg deny hy, DenyUpper deny -> LdhFree deny -> Redisc A cfg deny ->
  forall d Ys Fss k bd, bytes d -> proc_all A cfg deny hy (split_on DOT d) = SOk (Ys, Fss) -> VBk A cfg k bd Ys ->
  (k <= length (ptake (split_on DOT d)))%nat ->
  exists b ov, outs cfg uT (VL Ys) (concat Fss) = inl ov /\ to_unicode A cfg d deny hy = UI b (join_dots ov) false.
Print Assumptions C12_virtual_unicode.

(* C12_statement3 is false for an abstract adapter that satisfies its six adapter premises (mapad: map_normalize rewrites
   U+00E9 to U+00EA, normalize_validate accepts every scalar value): xn--9ca is accepted, ToUnicode shows U+00E9, ToASCII
   of that is xn--bda.  A refutation of the STATEMENT (the premise NvMapFix is missing), not of the crate *)
Theorem C12_statement3_refuted : exists A cfg,
  AdapterOK A /\ AdapterUSV A /\ NvNoTrunc A /\ NvIdem A /\ AsciiNoMark A /\ MapPrefix A /\ ~ C12_statement3 A cfg.
Proof. exact c12_statement3_refuted. Qed.
Check C12_statement3_refuted : exists A cfg,
  AdapterOK A /\ AdapterUSV A /\ NvNoTrunc A /\ NvIdem A /\ AsciiNoMark A /\ MapPrefix A /\ ~ C12_statement3 A cfg.
Print Assumptions C12_statement3_refuted.

Theorem C12_statement3_witness :
  to_ascii mapad false W_stmt3 DENY_EMPTY HAllow DIgnore = Ok (true, W_stmt3) /\
  Known_C12 mapad false W_stmt3 DENY_EMPTY HAllow = false /\ Known_C11 mapad false W_stmt3 DENY_EMPTY HAllow = false /\
  Known_C10_long W_stmt3 = false /\
  to_unicode mapad false W_stmt3 DENY_EMPTY HAllow = UI false [233] false /\
  to_ascii mapad false (utf8_encode [233]) DENY_EMPTY HAllow DIgnore = Ok (false, W_stmt3_2).
Proof. exact w_c12_stmt3. Qed.
Check C12_statement3_witness :
  to_ascii mapad false W_stmt3 DENY_EMPTY HAllow DIgnore = Ok (true, W_stmt3) /\
  Known_C12 mapad false W_stmt3 DENY_EMPTY HAllow = false /\ Known_C11 mapad false W_stmt3 DENY_EMPTY HAllow = false /\
  Known_C10_long W_stmt3 = false /\
  to_unicode mapad false W_stmt3 DENY_EMPTY HAllow = UI false [233] false /\
  to_ascii mapad false (utf8_encode [233]) DENY_EMPTY HAllow DIgnore = Ok (false, W_stmt3_2).
Print Assumptions C12_statement3_witness.

(* the premises of C12_statement4 (those of C12_statement3 and NvMapFix) are satisfiable, the
   adapter of the refutation violates NvMapFix, and a non-ASCII name goes through all four clauses *)
Example C12_statement4_premises_hold :
  (AdapterOK lowsan4 /\ AdapterUSV lowsan4 /\ NvNoTrunc lowsan4 /\ NvIdem lowsan4 /\ AsciiNoMark lowsan4 /\ MapPrefix lowsan4 /\ NvMapFix lowsan4) /\
  ~ NvMapFix mapad /\
  to_ascii lowsan4 true W_idem3 DENY_URL HCheck DIgnore = Ok (false, W_idem3_A) /\
  to_unicode lowsan4 true W_idem3 DENY_URL HCheck = UI false [97; 46; 98; 252; 99; 104; 101; 114] false /\
  to_ascii lowsan4 true (utf8_encode [97; 46; 98; 252; 99; 104; 101; 114]) DENY_URL HCheck DIgnore = Ok (false, W_idem3_A).
Proof.
  split; [exact lowsan4_premises|]. split; [exact mapad_not_mapfix|].
  destruct w_c12_stmt4 as (H1 & _ & _ & _ & H2 & _ & H3 & _). split; [exact H1|]. split; [exact H2|exact H3].
Qed.

(* C12_statement4, clauses u_of_a, a_of_u and u_idem, on the class PunyIn d = false (the accepted run recorded no xn--
   input label: no entry of already_punycode is MixedCasePunycode; non-ASCII labels, ideographic dots, mapped characters
   are all inside the class), outside Known_C12 and Known_C10_long - Known_C11 need not be excluded: ToUnicode of the
   ASCII form is ToUnicode of the name, ToASCII of the (UTF-8 form of the) Unicode form is the ASCII form, ToUnicode is
   idempotent.  Premises: the seven sampled adapter facts of C12_statement4.
   Not covered: clause ui (to_user_interface with an arbitrary display policy), and the clauses a_of_u / u_idem for
   names with an accepted xn-- input label; C12_5 below covers both, with the further premise NvNoGrow and the Punycode
   fact C12_enc_dec_internal (encode_internal (decode U8Internal p) = map to_lower p) *)
Theorem C12_round_partial : forall A cfg,
  AdapterOK A -> AdapterUSV A -> NvNoTrunc A -> NvIdem A -> AsciiNoMark A -> MapPrefix A -> NvMapFix A ->
  forall d deny hy b a, bytes d -> valid_deny deny -> Known_C12 A cfg d deny hy = false -> PunyIn A cfg d deny hy = false ->
  to_ascii A cfg d deny hy DIgnore = Ok (b, a) -> Known_C10_long a = false ->
  let u := ui_text (to_unicode A cfg d deny hy) in
  (ui_text (to_unicode A cfg a deny hy) = u /\ ui_err (to_unicode A cfg a deny hy) = false) /\
  (exists b', to_ascii A cfg (utf8_encode u) deny hy DIgnore = Ok (b', a)) /\
  (ui_text (to_unicode A cfg (utf8_encode u) deny hy) = u /\ ui_err (to_unicode A cfg (utf8_encode u) deny hy) = false).
Proof. exact c12_round. Qed.
Check C12_round_partial : forall A cfg,
  AdapterOK A -> AdapterUSV A -> NvNoTrunc A -> NvIdem A -> AsciiNoMark A -> MapPrefix A -> NvMapFix A ->
  forall d deny hy b a, bytes d -> valid_deny deny -> Known_C12 A cfg d deny hy = false -> PunyIn A cfg d deny hy = false ->
  to_ascii A cfg d deny hy DIgnore = Ok (b, a) -> Known_C10_long a = false ->
  let u := ui_text (to_unicode A cfg d deny hy) in
  (ui_text (to_unicode A cfg a deny hy) = u /\ ui_err (to_unicode A cfg a deny hy) = false) /\
  (exists b', to_ascii A cfg (utf8_encode u) deny hy DIgnore = Ok (b', a)) /\
  (ui_text (to_unicode A cfg (utf8_encode u) deny hy) = u /\ ui_err (to_unicode A cfg (utf8_encode u) deny hy) = false).
Print Assumptions C12_round_partial.

Example C12_round_premises_hold :
  (AdapterOK lowsan4 /\ AdapterUSV lowsan4 /\ NvNoTrunc lowsan4 /\ NvIdem lowsan4 /\ AsciiNoMark lowsan4 /\ MapPrefix lowsan4 /\ NvMapFix lowsan4) /\
  Known_C12 lowsan4 true W_idem3 DENY_URL HCheck = false /\ PunyIn lowsan4 true W_idem3 DENY_URL HCheck = false /\
  to_ascii lowsan4 true W_idem3 DENY_URL HCheck DIgnore = Ok (false, W_idem3_A) /\ Known_C10_long W_idem3_A = false /\
  to_unicode lowsan4 true W_idem3 DENY_URL HCheck = UI false [97; 46; 98; 252; 99; 104; 101; 114] false.
Proof. split; [exact lowsan4_premises|exact c12_round_example]. Qed.

(* THE FULL STATEMENT (C12_statement5 = C12_statement4 and the sampled premise NvNoGrow): for every byte string that ToASCII
   accepts, outside Known_C12 (F-C12-1), Known_C11 and - on the ASCII form - Known_C10_long (F-C10-1), every deny list the
   API can build, every hyphen mode, debug assertions on or off: ToUnicode of the ASCII form is ToUnicode of the name;
   ToASCII of the Unicode form is the ASCII form; ToUnicode is idempotent; ToASCII of to_user_interface of the name under
   EVERY display policy is the ASCII form.  Names with xn-- input labels (any case), non-ASCII labels, mapped characters,
   ideographic dots, empty labels included *)
Theorem C12_5 : forall A cfg, C12_statement5 A cfg.
Proof. exact c12_5. Qed.
Check C12_5 : forall A cfg,
  AdapterOK A -> AdapterUSV A -> NvNoTrunc A -> NvIdem A -> AsciiNoMark A -> MapPrefix A -> NvMapFix A -> NvNoGrow A ->
  forall d deny hy b a,
  bytes d -> valid_deny deny -> Known_C12 A cfg d deny hy = false -> Known_C11 A cfg d deny hy = false ->
  to_ascii A cfg d deny hy DIgnore = Ok (b, a) -> Known_C10_long a = false ->
  let u := ui_text (to_unicode A cfg d deny hy) in
  (ui_text (to_unicode A cfg a deny hy) = u /\ ui_err (to_unicode A cfg a deny hy) = false) /\
  (exists b', to_ascii A cfg (utf8_encode u) deny hy DIgnore = Ok (b', a)) /\
  (ui_text (to_unicode A cfg (utf8_encode u) deny hy) = u /\ ui_err (to_unicode A cfg (utf8_encode u) deny hy) = false) /\
  (forall p, exists b', to_ascii A cfg (utf8_encode (ui_text (to_user_interface A cfg d deny hy p))) deny hy DIgnore = Ok (b', a)).
Print Assumptions C12_5.

(* the same WITHOUT the exclusion of Known_C11, and with: to_user_interface reports no error and does not panic *)
Theorem C12_all : forall A cfg,
  AdapterOK A -> AdapterUSV A -> NvNoTrunc A -> NvIdem A -> AsciiNoMark A -> MapPrefix A -> NvMapFix A -> NvNoGrow A ->
  forall d deny hy b a, bytes d -> valid_deny deny -> Known_C12 A cfg d deny hy = false ->
  to_ascii A cfg d deny hy DIgnore = Ok (b, a) -> Known_C10_long a = false ->
  let u := ui_text (to_unicode A cfg d deny hy) in
  (ui_text (to_unicode A cfg a deny hy) = u /\ ui_err (to_unicode A cfg a deny hy) = false) /\
  (exists b', to_ascii A cfg (utf8_encode u) deny hy DIgnore = Ok (b', a)) /\
  (ui_text (to_unicode A cfg (utf8_encode u) deny hy) = u /\ ui_err (to_unicode A cfg (utf8_encode u) deny hy) = false) /\
  (forall p, ui_err (to_user_interface A cfg d deny hy p) = false /\ ui_panics (to_user_interface A cfg d deny hy p) = false /\
     exists b', to_ascii A cfg (utf8_encode (ui_text (to_user_interface A cfg d deny hy p))) deny hy DIgnore = Ok (b', a)).
Proof. exact c12_all. Qed.
Check C12_all : forall A cfg,
  AdapterOK A -> AdapterUSV A -> NvNoTrunc A -> NvIdem A -> AsciiNoMark A -> MapPrefix A -> NvMapFix A -> NvNoGrow A ->
  forall d deny hy b a, bytes d -> valid_deny deny -> Known_C12 A cfg d deny hy = false ->
  to_ascii A cfg d deny hy DIgnore = Ok (b, a) -> Known_C10_long a = false ->
  let u := ui_text (to_unicode A cfg d deny hy) in
  (ui_text (to_unicode A cfg a deny hy) = u /\ ui_err (to_unicode A cfg a deny hy) = false) /\
  (exists b', to_ascii A cfg (utf8_encode u) deny hy DIgnore = Ok (b', a)) /\
  (ui_text (to_unicode A cfg (utf8_encode u) deny hy) = u /\ ui_err (to_unicode A cfg (utf8_encode u) deny hy) = false) /\
  (forall p, ui_err (to_user_interface A cfg d deny hy p) = false /\ ui_panics (to_user_interface A cfg d deny hy p) = false /\
     exists b', to_ascii A cfg (utf8_encode (ui_text (to_user_interface A cfg d deny hy p))) deny hy DIgnore = Ok (b', a)).
Print Assumptions C12_all.

(* the eight premises are satisfiable, and a name with an xn-- INPUT label (upper-case letters in the prefix, the basic
   code units and the digits: A.XN--Bcher-KVA) goes through the clauses; two display policies *)
Example C12_5_premises_hold :
  (AdapterOK lowsan4 /\ AdapterUSV lowsan4 /\ NvNoTrunc lowsan4 /\ NvIdem lowsan4 /\ AsciiNoMark lowsan4 /\ MapPrefix lowsan4 /\
   NvMapFix lowsan4 /\ NvNoGrow lowsan4) /\
  to_ascii lowsan4 true W_stmt5 DENY_URL HCheck DIgnore = Ok (false, W_stmt5_A) /\
  Known_C12 lowsan4 true W_stmt5 DENY_URL HCheck = false /\ Known_C11 lowsan4 true W_stmt5 DENY_URL HCheck = false /\
  PunyIn lowsan4 true W_stmt5 DENY_URL HCheck = true /\ Known_C10_long W_stmt5_A = false /\
  to_unicode lowsan4 true W_stmt5 DENY_URL HCheck = UI false W_stmt5_U false /\
  to_ascii lowsan4 true (utf8_encode W_stmt5_U) DENY_URL HCheck DIgnore = Ok (false, W_stmt5_A) /\
  to_user_interface lowsan4 true W_stmt5 DENY_URL HCheck never_unicode = UI false W_stmt5_A false /\
  to_user_interface lowsan4 true W_stmt5 DENY_URL HCheck even_len_policy = UI false W_stmt5_U false.
Proof. split; [exact lowsan4_premises5|exact w_c12_stmt5]. Qed.

(* the Punycode fact behind the xn-- input labels: C13_enc_dec transported to the Internal instantiations - what the u8
   internal decoder reads from an all-ASCII text p (at most 1000 scalar values) is re-encoded by the internal-caller
   encoder to p with its ASCII letters lower-cased (basic code units, delimiter and digits) *)
Theorem C12_enc_dec_internal : forall cfg p s, Forall (fun b => b < 128) p -> N.of_nat (length p) <= U32_MAX ->
  decode_with cfg U8Internal p = Ok s -> usv_list s -> (length s <= 1000)%nat ->
  encode_internal cfg s = Ok (map to_lower p).
Proof. exact enc_dec_internal. Qed.
Check C12_enc_dec_internal : forall cfg p s, Forall (fun b => b < 128) p -> N.of_nat (length p) <= U32_MAX ->
  decode_with cfg U8Internal p = Ok s -> usv_list s -> (length s <= 1000)%nat ->
  encode_internal cfg s = Ok (map to_lower p).
Print Assumptions C12_enc_dec_internal.

Example C12_enc_dec_internal_premises_hold :
  Forall (fun b => b < 128) [66; 99; 104; 101; 114; 45; 75; 86; 65] /\
  decode_with true U8Internal [66; 99; 104; 101; 114; 45; 75; 86; 65] = Ok [98; 252; 99; 104; 101; 114] /\
  usv_list [98; 252; 99; 104; 101; 114] /\
  encode_internal true [98; 252; 99; 104; 101; 114] = Ok [98; 99; 104; 101; 114; 45; 107; 118; 97].
Proof.
  split; [repeat constructor|]. split; [vm_compute; reflexivity|].
  split; [repeat constructor; unfold is_usv; lia|vm_compute; reflexivity].
Qed.

(* the per-label fact behind it: the fail-fast label step applied to the UTF-8 form of a non-ASCII text dbl that
   normalize_validate fixes, that passes the deny list and check_label and does not start with xn--, returns the buffer
   label dbl with the entry AalOther (uts46.rs copies the ASCII prefix but its last character and maps the rest) *)
Theorem C12_label_unicode : forall A cfg deny hy, DenyUpper deny -> MapPrefix A -> NvMapFix A ->
  forall dbl, normalize_validate A dbl = dbl -> Forall (gc (dd deny)) dbl -> chk A cfg hy dbl -> usv_list dbl ->
  is_ascii_l dbl = false -> starts_with dbl XN_PREFIX = false ->
  pres A cfg deny hy (utf8_encode dbl) = SOk (dbl, false, [AalOther]).
Proof. exact pres_unicode. Qed.
Check C12_label_unicode : forall A cfg deny hy, DenyUpper deny -> MapPrefix A -> NvMapFix A ->
  forall dbl, normalize_validate A dbl = dbl -> Forall (gc (dd deny)) dbl -> chk A cfg hy dbl -> usv_list dbl ->
  is_ascii_l dbl = false -> starts_with dbl XN_PREFIX = false ->
  pres A cfg deny hy (utf8_encode dbl) = SOk (dbl, false, [AalOther]).
Print Assumptions C12_label_unicode.

(* C12_statement2 is false for an abstract adapter that satisfies its four adapter premises (ctxad: U+00EA becomes U+00EB
   exactly after "ab"): outside Known_C12, Known_C11 and Known_C10_long, ToUnicode of the ASCII form xn--ab-fja of
   "ab" U+00EA reports an error.  A refutation of the STATEMENT (the premise MapPrefix is missing), not of the crate *)
Theorem C12_statement2_refuted : exists A cfg, AdapterOK A /\ NvNoTrunc A /\ NvIdem A /\ AsciiNoMark A /\ ~ C12_statement2 A cfg.
Proof. exact c12_statement2_refuted. Qed.
Check C12_statement2_refuted : exists A cfg, AdapterOK A /\ NvNoTrunc A /\ NvIdem A /\ AsciiNoMark A /\ ~ C12_statement2 A cfg.
Print Assumptions C12_statement2_refuted.

(* the Punycode round trip that uts46.rs relies on (PunyRT, Proofs/Idna_Hyp.v) is a theorem, derived from the C13
   development: for a label of at most 1000 scalar values the internal encoder's output is read back by the char
   decoder as the label and by the u8 decoder as the label with its ASCII letters lower-cased *)
Theorem C12_punyrt : forall cfg l p,
  len l <= PUNYCODE_ENCODE_MAX_INPUT_LENGTH -> usv_list l -> encode_internal cfg l = Ok p ->
  decode_with cfg CharInternal p = Ok l /\ decode_with cfg U8Internal p = Ok (map to_lower l).
Proof. exact punyrt_holds. Qed.
Check C12_punyrt : forall cfg l p,
  len l <= PUNYCODE_ENCODE_MAX_INPUT_LENGTH -> usv_list l -> encode_internal cfg l = Ok p ->
  decode_with cfg CharInternal p = Ok l /\ decode_with cfg U8Internal p = Ok (map to_lower l).
Print Assumptions C12_punyrt.

Theorem C12_punyrt_rel : forall cfg, PunyRT cfg.
Proof. exact punyrt_holds. Qed.
Check C12_punyrt_rel : forall cfg, PunyRT cfg.
Print Assumptions C12_punyrt_rel.

(* the first wording of that premise (both decoders return the label itself, upper-case letters included) was
   unsatisfiable: [65; 252] encodes to "A-eha", which the u8 decoder reads as [97; 252] *)
Theorem C12_punyrt_old_unsat : forall cfg, ~ PunyRT_old cfg.
Proof. exact PunyRT_old_unsat. Qed.
Check C12_punyrt_old_unsat : forall cfg, ~ PunyRT_old cfg.
Print Assumptions C12_punyrt_old_unsat.

(* F-C12-1: inside Known_C12 the round trip fails *)
Theorem C12_refuted : exists A d deny hy u,
  Known_C12 A false d deny hy = true /\
  to_ascii A false d deny hy DIgnore = Ok (true, d) /\
  to_unicode A false d deny hy = UI false u false /\
  to_ascii A false (utf8_encode u) deny hy DIgnore = Err /\
  ui_err (to_unicode A false (utf8_encode u) deny hy) = true.
Proof.
  exists toy, W_C12_1, DENY_EMPTY, HAllow, W_C12_1_U.
  destruct w_c12_1 as (H1 & H2 & H3 & H4 & H5). repeat split; assumption.
Qed.
Check C12_refuted : exists A d deny hy u,
  Known_C12 A false d deny hy = true /\
  to_ascii A false d deny hy DIgnore = Ok (true, d) /\
  to_unicode A false d deny hy = UI false u false /\
  to_ascii A false (utf8_encode u) deny hy DIgnore = Err /\
  ui_err (to_unicode A false (utf8_encode u) deny hy) = true.
Print Assumptions C12_refuted.

(* F-C10-1: outside Known_C12 and Known_C11 the round trip fails as well - C12_statement is false for an adapter that
   satisfies AdapterOK: ToASCII accepts a label of 1000 ideographs, ToUnicode of the original shows it without error,
   ToUnicode (and to_user_interface) of the ASCII form report an error (more than 2000 characters after xn--) *)
Theorem C12_statement_refuted : exists A cfg, AdapterOK A /\ ~ C12_statement A cfg.
Proof. exact c12_statement_refuted. Qed.
Check C12_statement_refuted : exists A cfg, AdapterOK A /\ ~ C12_statement A cfg.
Print Assumptions C12_statement_refuted.

Theorem C12_long_witness :
  to_ascii lowad false W_C10_long DENY_EMPTY HAllow DIgnore = Ok (false, W_C10_long_A) /\
  Known_C10_long W_C10_long_A = true /\
  to_unicode lowad false W_C10_long DENY_EMPTY HAllow = UI false W_C10_long_U false /\
  ui_err (to_unicode lowad false W_C10_long_A DENY_EMPTY HAllow) = true /\
  ui_err (to_user_interface lowad false W_C10_long_A DENY_EMPTY HAllow never_unicode) = true.
Proof.
  exact (conj (proj1 (proj2 (proj2 (proj2 w_c10_long)))) (conj (proj1 (proj2 (proj2 (proj2 (proj2 (proj2 w_c10_long))))))
          w_c10_long_unicode)).
Qed.
Check C12_long_witness :
  to_ascii lowad false W_C10_long DENY_EMPTY HAllow DIgnore = Ok (false, W_C10_long_A) /\
  Known_C10_long W_C10_long_A = true /\
  to_unicode lowad false W_C10_long DENY_EMPTY HAllow = UI false W_C10_long_U false /\
  ui_err (to_unicode lowad false W_C10_long_A DENY_EMPTY HAllow) = true /\
  ui_err (to_user_interface lowad false W_C10_long_A DENY_EMPTY HAllow never_unicode) = true.
Print Assumptions C12_long_witness.

(* constants of Gen/Tables.v: Punycode prefix test (case-insensitive xn--) and length caps *)
Theorem C12_consts :
  T_IDNA_PREFIX = 45 * 16777216 + 45 * 65536 + 78 * 256 + 88 /\
  T_IDNA_PREFIX_MASK = 255 * 16777216 + 255 * 65536 + 223 * 256 + 223 /\
  forallb has_punycode_prefix [[120;110;45;45]; [88;110;45;45]; [120;78;45;45]; [88;78;45;45]; [120;110;45;45;97]] = true /\
  existsb has_punycode_prefix [[120;110;45]; [120;110;45;46]; [121;110;45;45]; [120;111;45;45]; [120;110;13;45]; [24;110;45;45]] = false /\
  T_IDNA_DNS_TOTAL = 253 /\ T_IDNA_DNS_LABEL = 63 /\ T_IDNA_DECODE_MAX = 2000 /\ T_IDNA_ENCODE_MAX = 1000.
Proof. exact (conj (proj1 idna_prefix) (conj (proj1 (proj2 idna_prefix)) (conj (proj1 (proj2 (proj2 idna_prefix))) (conj (proj2 (proj2 (proj2 idna_prefix))) idna_limits)))). Qed.
Check C12_consts :
  T_IDNA_PREFIX = 45 * 16777216 + 45 * 65536 + 78 * 256 + 88 /\
  T_IDNA_PREFIX_MASK = 255 * 16777216 + 255 * 65536 + 223 * 256 + 223 /\
  forallb has_punycode_prefix [[120;110;45;45]; [88;110;45;45]; [120;78;45;45]; [88;78;45;45]; [120;110;45;45;97]] = true /\
  existsb has_punycode_prefix [[120;110;45]; [120;110;45;46]; [121;110;45;45]; [120;111;45;45]; [120;110;13;45]; [24;110;45;45]] = false /\
  T_IDNA_DNS_TOTAL = 253 /\ T_IDNA_DNS_LABEL = 63 /\ T_IDNA_DECODE_MAX = 2000 /\ T_IDNA_ENCODE_MAX = 1000.
Print Assumptions C12_consts.

Example C12_premises_hold :
  to_ascii toy true [120; 110; 45; 45; 52; 100; 98] DENY_EMPTY HAllow DIgnore = Ok (true, [120; 110; 45; 45; 52; 100; 98]) /\
  to_unicode toy true [120; 110; 45; 45; 52; 100; 98] DENY_EMPTY HAllow = UI false [1488] false /\
  to_ascii toy true (utf8_encode [1488]) DENY_EMPTY HAllow DIgnore = Ok (false, [120; 110; 45; 45; 52; 100; 98]).
Proof. vm_compute. repeat split; reflexivity. Qed.
